(** List facts that the standard library of Coq 8.16 lacks and that several
    directories of the development need. *)
From Coq Require Import List Arith Lia.
Import ListNotations.

Lemma nth_error_seq : forall len start i, i < len -> nth_error (seq start len) i = Some (start + i).
Proof.
  induction len as [|len IH]; intros start i Hi; [lia|].
  destruct i as [|i]; simpl; [f_equal; lia|]. rewrite IH by lia. f_equal. lia.
Qed.

Lemma nth_error_seq0 : forall n i, i < n -> nth_error (seq 0 n) i = Some i.
Proof. intros n i Hi. exact (nth_error_seq n 0 i Hi). Qed.

Lemma nth_error_repeat_inv : forall (A : Type) (x y : A) n i, nth_error (repeat x n) i = Some y -> y = x.
Proof. intros A x y n i H. exact (repeat_spec n x y (nth_error_In _ _ H)). Qed.

Lemma forallb_ext_in : forall (A : Type) (f g : A -> bool) l,
  (forall x, In x l -> f x = g x) -> forallb f l = forallb g l.
Proof.
  intros A f g l H. induction l as [|x r IH]; simpl; [reflexivity|].
  rewrite (H x (or_introl eq_refl)), IH; [reflexivity|]. intros y Hy. apply H. right. exact Hy.
Qed.

Lemma forallb_ext : forall (A : Type) (f g : A -> bool) l, (forall x, f x = g x) -> forallb f l = forallb g l.
Proof. intros A f g l H. apply forallb_ext_in. intros x _. apply H. Qed.

Lemma NoDup_app_l {A} (a b : list A) : NoDup (a ++ b) -> NoDup a.
Proof.
  induction a as [|x a IH]; simpl; intros H; [constructor|]. inversion H; subst.
  constructor; [|auto]. intro Hx. apply H2, in_or_app. left. exact Hx.
Qed.

Lemma NoDup_app_r {A} (a b : list A) : NoDup (a ++ b) -> NoDup b.
Proof. induction a as [|x a IH]; simpl; intros H; [exact H|]. inversion H; auto. Qed.

Lemma NoDup_app_intro {A} (a b : list A) :
  NoDup a -> NoDup b -> (forall x, In x a -> In x b -> False) -> NoDup (a ++ b).
Proof.
  intros Ha Hb Hd. induction Ha as [|x a Hx Ha IH]; simpl; [exact Hb|]. constructor.
  - intro Hi. apply in_app_or in Hi. destruct Hi as [Hi|Hi]; [exact (Hx Hi)|]. exact (Hd x (or_introl eq_refl) Hi).
  - apply IH. intros y Hy. apply Hd. right. exact Hy.
Qed.

Lemma flat_map_nil : forall A B (f : A -> list B) l, (forall x, In x l -> f x = []) -> flat_map f l = [].
Proof.
  intros A B f l. induction l as [|x l IH]; intros H; simpl; [reflexivity|].
  rewrite (H x (or_introl eq_refl)), IH; [reflexivity|]. intros y Hy. apply H. right. exact Hy.
Qed.

Lemma nodup_map_filter : forall (A B : Type) (f : A -> B) (p : A -> bool) l,
  NoDup (map f l) -> NoDup (map f (filter p l)).
Proof.
  intros A B f p l. induction l as [|x l IH]; simpl; intros H; [constructor|]. inversion H; subst.
  destruct (p x); simpl; [|auto]. constructor; [|auto].
  intro Hi. apply H2. apply in_map_iff in Hi. destruct Hi as [y [Hy Hi]]. apply filter_In in Hi.
  apply in_map_iff. exists y. tauto.
Qed.

Lemma NoDup_snoc {A} (l : list A) x : NoDup l -> ~ In x l -> NoDup (l ++ [x]).
Proof.
  intros Hl Hx. apply NoDup_app_intro; [exact Hl | constructor; [intros [] | constructor] |].
  intros y Hy [<-|[]]. exact (Hx Hy).
Qed.

Lemma nth_error_firstn {A} (l : list A) j i : i < j -> nth_error (firstn j l) i = nth_error l i.
Proof.
  revert j i; induction l as [|a l IH]; intros [|j] [|i] H; cbn; try reflexivity; try lia.
  apply IH. lia.
Qed.

Lemma nth_error_snoc {A} (l : list A) x j y : nth_error (l ++ [x]) j = Some y ->
  (j < length l /\ nth_error l j = Some y) \/ (j = length l /\ y = x).
Proof.
  intros H. destruct (Nat.lt_ge_cases j (length l)) as [Hlt|Hge].
  - left. rewrite nth_error_app1 in H by exact Hlt. auto.
  - right. rewrite nth_error_app2 in H by exact Hge.
    destruct (j - length l) as [|[|d]] eqn:E; cbn in H; inversion H. split; [lia|reflexivity].
Qed.
