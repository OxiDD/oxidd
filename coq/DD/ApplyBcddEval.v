(** * Correctness of the BCDD apply algorithms, part 3

    - cache instances ([eac_*]: association list, [enc_*]: no cache);
    - [capply_not_sound], [capply_op_sound], [capply_ite_sound]: the theorems
      of parts 1 and 2 in terms of the interpreter [semc] only;
    - [capply_op_history_independent], [capply_ite_history_independent],
      [capply_op_result_unique]: the returned edge does not depend on the
      cache, the operand order or the history (C06 for BCDDs);
    - [ceval_walk_sem], [ceval_edge_assignment]: the walk of [eval_edge] with
      its complement parity computes the node-by-node interpretation;
    - [ccofactors_shannon], [ccofactors_cof]: [cofactors] returns the two
      Shannon cofactors w.r.t. the top-most variable;
    - [cmk_const_sem], [cmk_var_sem], [cmk_var_bfun];
    - [capply_op_bfun], [capply_ite_bfun]: in terms of Boolean functions of
      variable assignments (DD/Sem.v). *)

From Coq Require Import List NArith PArith Bool Arith Lia FMapPositive.
From OxiVerif Require Import DD.Table DD.TableProofs DD.Canon DD.CanonBcdd DD.Sem DD.Build DD.BuildProofs
  DD.PickInsert DD.Apply DD.ApplyProofs DD.ApplyEvalProofs DD.ApplyBcdd DD.ApplyBcddProofs DD.ApplyBcddIte.
Import ListNotations.

(** ** Cache instances *)

Lemma eac_lossy : lossyC eac_get eac_add.
Proof.
  intros c k a r k' a' r' E. unfold eac_add in E. simpl in E.
  destruct (N.eqb k k' && edges_eqb a a') eqn:Ek; [|right; exact E].
  apply andb_true_iff in Ek. destruct Ek as [E1 E2].
  apply N.eqb_eq in E1. apply edges_eqb_eq in E2. inversion E; subst. left. auto.
Qed.

Lemma enc_lossy : lossyC enc_get enc_add.
Proof. intros c k a r k' a' r' E. discriminate. Qed.

Lemma eac_empty_ok : forall s, CacheOKC eac_get s [].
Proof. intros s code args r E. discriminate. Qed.

Lemma enc_ok : forall s c, CacheOKC enc_get s c.
Proof. intros s c code args r E. discriminate. Qed.

(** ** The theorems in terms of [semc] only *)

Definition CFUEL (s : snap) : nat := S (nlevels s).

(** value of edge [e] under choice [c0] *)
Definition cvalue (s : snap) (e : edge) (c0 : nat -> nat) (x : bool) : Prop :=
  semc s (CFUEL s) e c0 = Some x.

Lemma cvalue_fun : forall s e c0 x y, cvalue s e c0 x -> cvalue s e c0 y -> x = y.
Proof. intros s e c0 x y A B. unfold cvalue in *. congruence. Qed.

(** not: the tag flip, whatever the cache *)
Theorem capply_not_sound : forall C s (c : C) f,
  BcOK s -> ref_ok s (eref f) ->
  exists r, capply_not C s c f = Some (s, c, r) /\ ref_ok s (eref r) /\
    forall c0, bchoice c0 -> exists x, cvalue s f c0 x /\ cvalue s r c0 (negb x).
Proof.
  intros C s c f B Hf. destruct (denc_exists s f B Hf) as [phi D].
  exists (enot f). split; [reflexivity|]. split; [exact Hf|].
  intros c0 Hc. exists (phi c0). split; [apply (proj2 D c0 Hc)|].
  apply (proj2 (denc_not s f phi D) c0 Hc).
Qed.

Section Top.
Variable lt : edge -> edge -> bool.
Variable C : Type.
Variable cget : C -> N -> list edge -> option edge.
Variable cadd : C -> N -> list edge -> edge -> C.
Hypothesis Hlossy : lossyC cget cadd.

Theorem capply_op_sound : forall o fuel s c f g,
  BcOK s -> CacheOKC cget s c -> ref_ok s (eref f) -> ref_ok s (eref g) -> CFUEL s <= fuel ->
  exists s' c' r, capply_op lt C cget cadd fuel s c o f g = Some (s', c', r) /\
    BcOK s' /\ extends s s' /\ CacheOKC cget s' c' /\ ref_ok s' (eref r) /\
    forall c0, bchoice c0 -> exists x y,
      cvalue s f c0 x /\ cvalue s g c0 y /\ cvalue s' r c0 (eval_bop o x y).
Proof.
  intros o fuel s c f g B O Hf Hg Hfuel.
  destruct (denc_exists s f B Hf) as [phi Df]. destruct (denc_exists s g B Hg) as [psi Dg].
  unfold CFUEL in Hfuel.
  destruct (capply_op_ok lt C cget cadd Hlossy o fuel s c f g phi psi B O Df Dg ltac:(lia))
    as [s' [c' [r [E [B' [X [O' [D' _]]]]]]]].
  exists s', c', r. repeat (split; [assumption|]). split; [apply (proj1 D')|].
  intros c0 Hc. exists (phi c0), (psi c0).
  split; [apply (proj2 Df c0 Hc)|]. split; [apply (proj2 Dg c0 Hc) | apply (proj2 D' c0 Hc)].
Qed.

Theorem capply_ite_sound : forall fuel s c f g h,
  BcOK s -> CacheOKC cget s c -> ref_ok s (eref f) -> ref_ok s (eref g) -> ref_ok s (eref h) ->
  CFUEL s <= fuel ->
  exists s' c' r, capply_ite lt C cget cadd fuel s c f g h = Some (s', c', r) /\
    BcOK s' /\ extends s s' /\ CacheOKC cget s' c' /\ ref_ok s' (eref r) /\
    forall c0, bchoice c0 -> exists x y z,
      cvalue s f c0 x /\ cvalue s g c0 y /\ cvalue s h c0 z /\
      cvalue s' r c0 (if x then y else z).
Proof.
  intros fuel s c f g h B O Hf Hg Hh Hfuel.
  destruct (denc_exists s f B Hf) as [phi Df]. destruct (denc_exists s g B Hg) as [psi Dg].
  destruct (denc_exists s h B Hh) as [theta Dh]. unfold CFUEL in Hfuel.
  destruct (capply_ite_ok lt C cget cadd Hlossy fuel s c f g h phi psi theta B O Df Dg Dh ltac:(lia))
    as [s' [c' [r [E [B' [X [O' [D' _]]]]]]]].
  exists s', c', r. repeat (split; [assumption|]). split; [apply (proj1 D')|].
  intros c0 Hc. exists (phi c0), (psi c0), (theta c0).
  split; [apply (proj2 Df c0 Hc)|]. split; [apply (proj2 Dg c0 Hc)|].
  split; [apply (proj2 Dh c0 Hc) | apply (proj2 D' c0 Hc)].
Qed.

End Top.

(** ** The returned edge does not depend on the cache, the operand order or
    the history *)

Section Transparent.
Variables lt1 lt2 : edge -> edge -> bool.
Variables C1 C2 : Type.
Variable cget1 : C1 -> N -> list edge -> option edge.
Variable cadd1 : C1 -> N -> list edge -> edge -> C1.
Variable cget2 : C2 -> N -> list edge -> option edge.
Variable cadd2 : C2 -> N -> list edge -> edge -> C2.
Hypothesis L1 : lossyC cget1 cadd1.
Hypothesis L2 : lossyC cget2 cadd2.

(** repeating the operation in any later state of the same table (more nodes,
    any correct cache of any implementation, any operand order) returns the
    identical edge and leaves the table unchanged *)
Definition crerun_same_edge :=
  grerun_same edge BcOK DenC denc_extends C1 C2 cget1 cget2 centry_ok centry_ok.

Theorem capply_op_history_independent : forall o s c1 f g fuel1 s1 c1' r1,
  BcOK s -> CacheOKC cget1 s c1 -> ref_ok s (eref f) -> ref_ok s (eref g) -> CFUEL s <= fuel1 ->
  capply_op lt1 C1 cget1 cadd1 fuel1 s c1 o f g = Some (s1, c1', r1) ->
  forall s2 c2 fuel2, BcOK s2 -> extends s1 s2 -> CacheOKC cget2 s2 c2 -> CFUEL s2 <= fuel2 ->
  exists c2', capply_op lt2 C2 cget2 cadd2 fuel2 s2 c2 o f g = Some (s2, c2', r1).
Proof.
  intros o s c1 f g fuel1 s1 c1' r1 B O1 Hf Hg F1 E1 s2 c2 fuel2 B2 X O2 F2.
  destruct (denc_exists s f B Hf) as [phi Df]. destruct (denc_exists s g B Hg) as [psi Dg].
  unfold CFUEL in F1, F2.
  destruct (crerun_same_edge s c1 _ _ s1 c1' r1 s2
              (capply_op_ok lt1 C1 cget1 cadd1 L1 o fuel1 s c1 f g phi psi B O1 Df Dg ltac:(lia)) E1 X)
    as [X02 R].
  apply (R c2). apply (capply_op_ok lt2 C2 cget2 cadd2 L2 o fuel2 s2 c2 f g phi psi B2 O2
                         (denc_extends s s2 _ _ B X02 Df) (denc_extends s s2 _ _ B X02 Dg)). lia.
Qed.

Theorem capply_ite_history_independent : forall s c1 f g h fuel1 s1 c1' r1,
  BcOK s -> CacheOKC cget1 s c1 -> ref_ok s (eref f) -> ref_ok s (eref g) -> ref_ok s (eref h) ->
  CFUEL s <= fuel1 ->
  capply_ite lt1 C1 cget1 cadd1 fuel1 s c1 f g h = Some (s1, c1', r1) ->
  forall s2 c2 fuel2, BcOK s2 -> extends s1 s2 -> CacheOKC cget2 s2 c2 -> CFUEL s2 <= fuel2 ->
  exists c2', capply_ite lt2 C2 cget2 cadd2 fuel2 s2 c2 f g h = Some (s2, c2', r1).
Proof.
  intros s c1 f g h fuel1 s1 c1' r1 B O1 Hf Hg Hh F1 E1 s2 c2 fuel2 B2 X O2 F2.
  destruct (denc_exists s f B Hf) as [phi Df]. destruct (denc_exists s g B Hg) as [psi Dg].
  destruct (denc_exists s h B Hh) as [theta Dh]. unfold CFUEL in F1, F2.
  destruct (crerun_same_edge s c1 _ _ s1 c1' r1 s2
              (capply_ite_ok lt1 C1 cget1 cadd1 L1 fuel1 s c1 f g h phi psi theta B O1 Df Dg Dh ltac:(lia)) E1 X)
    as [X02 R].
  apply (R c2). apply (capply_ite_ok lt2 C2 cget2 cadd2 L2 fuel2 s2 c2 f g h phi psi theta B2 O2
                         (denc_extends s s2 _ _ B X02 Df) (denc_extends s s2 _ _ B X02 Dg)
                         (denc_extends s s2 _ _ B X02 Dh)). lia.
Qed.

End Transparent.

(** in its result table the returned edge is THE edge with the result's meaning *)
Theorem capply_op_result_unique : forall lt C cget cadd, lossyC cget cadd ->
  forall o fuel s (c : C) f g s' c' r,
  BcOK s -> CacheOKC cget s c -> ref_ok s (eref f) -> ref_ok s (eref g) -> CFUEL s <= fuel ->
  capply_op lt C cget cadd fuel s c o f g = Some (s', c', r) ->
  forall r0, ref_ok s' (eref r0) ->
    (forall c0, bchoice c0 -> exists x y,
        cvalue s f c0 x /\ cvalue s g c0 y /\ cvalue s' r0 c0 (eval_bop o x y)) ->
    r0 = r.
Proof.
  intros lt C cget cadd L o fuel s c f g s' c' r B O Hf Hg F E r0 H0 Hsem.
  destruct (denc_exists s f B Hf) as [phi Df]. destruct (denc_exists s g B Hg) as [psi Dg].
  unfold CFUEL in F.
  destruct (capply_op_ok lt C cget cadd L o fuel s c f g phi psi B O Df Dg ltac:(lia))
    as [sa [ca [ra [Ea [Ba [_ [_ [Da _]]]]]]]].
  rewrite E in Ea. inversion Ea; subst sa ca ra.
  apply (denc_canon s' r0 r (fun c0 => eval_bop o (phi c0) (psi c0)) Ba); [|exact Da].
  split; [exact H0|]. intros c0 Hc. destruct (Hsem c0 Hc) as [x [y [Vx [Vy V0]]]].
  rewrite (cvalue_fun s f c0 _ _ (proj2 Df c0 Hc) Vx), (cvalue_fun s g c0 _ _ (proj2 Dg c0 Hc) Vy).
  exact V0.
Qed.

(** ** The interpreter the correspondence drivers run *)

(** [sem_edge] (DD/Table.v), which the OCaml drivers evaluate on lifted
    snapshots to obtain value tables, is [semc] with the standard fuel on a
    BCDD table (value codes 0 = false, 1 = true) *)
Theorem sem_edge_bcdd : forall s e c, s_kind s = KBcdd ->
  sem_edge s e c = option_map (fun b : bool => if b then 1%N else 0%N) (semc s (CFUEL s) e c).
Proof. intros s e c Hk. unfold sem_edge. rewrite Hk. reflexivity. Qed.

(** ** Evaluation *)

(** the Boolean function (of variable assignments) of an edge under the
    table's variable order *)
Definition cbfun_of (s : snap) (e : edge) : bfun :=
  fun a => match semc s (CFUEL s) e (choice_of s a) with Some b => b | None => false end.

Lemma cbfun_of_den : forall s e phi, DenC s e phi -> forall a, cbfun_of s e a = phi (choice_of s a).
Proof.
  intros s e phi [_ D] a. unfold cbfun_of, CFUEL. rewrite (D _ (choice_of_bchoice s a)). reflexivity.
Qed.

(** the walk of [eval_edge], complement parity included, is the interpreter *)
Theorem ceval_walk_sem : forall s, WF s -> forall fuel e b ch,
  ceval_walk fuel s e b ch =
  option_map (xorb b) (semc s fuel e (fun l => if ch l then 1 else 0)).
Proof.
  intros s H. induction fuel as [|n IH]; intros e b ch.
  - destruct (eref e) as [t|id] eqn:Er.
    + rewrite (semc_T _ _ _ _ t Er). simpl. rewrite Er. simpl. destruct b, (etag e); reflexivity.
    + rewrite (semc_O _ _ _ id Er). simpl. rewrite Er. reflexivity.
  - destruct (eref e) as [t|id] eqn:Er.
    + rewrite (semc_T _ _ _ _ t Er). simpl. rewrite Er. simpl. destruct b, (etag e); reflexivity.
    + rewrite (semc_S _ _ _ _ id Er). simpl ceval_walk. rewrite Er.
      destruct (find_node s id) as [nd|] eqn:En; [|reflexivity].
      rewrite (wf_stored s H id nd En).
      destruct (ch (nlevel nd));
        (destruct (nth_error (nchildren nd) _) as [x|]; [|reflexivity];
         rewrite IH; destruct (semc s n x _) as [v|]; [|reflexivity];
         simpl; rewrite xorb_assoc; reflexivity).
Qed.

(** [eval_edge] on an existing edge: always a result, and it is the value
    [semc] gives under the choices built from the argument list *)
Theorem ceval_edge_sem : forall s e args, BcOK s -> ref_ok s (eref e) ->
  exists x, ceval_edge s e args = Some x /\
    cvalue s e (fun l => if choices_of s args (fun _ => false) l then 1 else 0) x.
Proof.
  intros s e args B Hok. unfold ceval_edge. rewrite (ceval_walk_sem s (bc_wf s B)).
  destruct (denc_exists s e B Hok) as [phi D].
  set (c := fun l => if choices_of s args (fun _ => false) l then 1 else 0).
  assert (Hc : bchoice c) by (intros l; unfold c; destruct (choices_of s args _ l); lia).
  exists (phi c). unfold cvalue, CFUEL. rewrite (proj2 D c Hc). split; [|reflexivity].
  simpl. destruct (phi c); reflexivity.
Qed.

(** for an argument list that gives every variable its value under [a],
    [eval_edge] returns the value of the edge's function at [a] *)
Theorem ceval_edge_assignment : forall s e (a : asg) args, BcOK s -> ref_ok s (eref e) ->
  (forall v b, In (v, b) args -> b = a v /\ v < nlevels s) ->
  (forall v, v < nlevels s -> In v (map fst args)) ->
  ceval_edge s e args = Some (cbfun_of s e a).
Proof.
  intros s e a args B Hok Hcons Hall. pose proof (bc_wf s B) as H.
  destruct (ceval_edge_sem s e args B Hok) as [x [E V]]. rewrite E. f_equal.
  destruct (denc_exists s e B Hok) as [phi D]. rewrite (cbfun_of_den s e phi D).
  set (c := fun l => if choices_of s args (fun _ => false) l then 1 else 0) in *.
  assert (Hc : bchoice c) by (intros l; unfold c; destruct (choices_of s args _ l); lia).
  apply (cvalue_fun s e c); [exact V|]. unfold cvalue, CFUEL.
  rewrite (proj2 D c Hc). f_equal.
  apply (denc_indep s e phi H D c (choice_of s a) Hc (choice_of_bchoice s a)).
  intros l _. apply (choices_of_assignment s a args H Hcons Hall).
Qed.

(** ** Cofactors *)

Theorem ccofactors_shannon : forall s e t x, BcOK s -> ref_ok s (eref e) ->
  ccofactors s e = Some (t, x) ->
  exists id nd, eref e = RN id /\ find_node s id = Some nd /\ rlevel s (eref e) = nlevel nd /\
    ref_ok s (eref t) /\ ref_ok s (eref x) /\
    forall c, bchoice c ->
      semc s (CFUEL s) t c = semc s (CFUEL s) e (cupd c (nlevel nd) 0) /\
      semc s (CFUEL s) x c = semc s (CFUEL s) e (cupd c (nlevel nd) 1).
Proof.
  intros s e t x B Hok Hc. pose proof (bc_wf s B) as H.
  unfold ccofactors in Hc. destruct (eref e) as [tt|id] eqn:Er; [discriminate|].
  destruct (find_node s id) as [nd|] eqn:En; [|discriminate].
  destruct (bcdd_children s id nd B En) as [a [b Ech]]. unfold ccofs in Hc. rewrite Ech in Hc.
  inversion Hc; subst t x.
  assert (Ha : nth_error (nchildren nd) 0 = Some a) by (rewrite Ech; reflexivity).
  assert (Hb : nth_error (nchildren nd) 1 = Some b) by (rewrite Ech; reflexivity).
  destruct (denc_exists s e B ltac:(rewrite Er; exact Hok)) as [phi D].
  pose proof (denc_child s e id nd 0 a phi B D Er En Ha) as Da.
  pose proof (denc_child s e id nd 1 b phi B D Er En Hb) as Db.
  exists id, nd. split; [reflexivity|]. split; [exact En|].
  split; [apply (rlevel_node s id nd En)|].
  split; [apply (proj1 Da)|]. split; [apply (proj1 Db)|].
  intros c Hc0. unfold CFUEL. split.
  - rewrite (proj2 Da c Hc0). unfold cofn. symmetry. apply (proj2 D). apply bchoice_upd; [exact Hc0 | lia].
  - rewrite (proj2 Db c Hc0). unfold cofn. symmetry. apply (proj2 D). apply bchoice_upd; [exact Hc0 | lia].
Qed.

(** C02: the two results of [cofactors] are the Shannon cofactors of the
    handle's function w.r.t. the variable at its root level *)
Theorem ccofactors_cof : forall s e t x, BcOK s -> ref_ok s (eref e) ->
  ccofactors s e = Some (t, x) ->
  exists v, nth_error (s_l2v s) (rlevel s (eref e)) = Some v /\
    forall a, cbfun_of s t a = cof (cbfun_of s e) v true a /\
              cbfun_of s x a = cof (cbfun_of s e) v false a.
Proof.
  intros s e t x B Hok Hc. pose proof (bc_wf s B) as H.
  destruct (ccofactors_shannon s e t x B Hok Hc) as [id [nd [Er [En [Hl [Ot [Ox Hs]]]]]]].
  pose proof (wf_level s H id nd En) as Hlv.
  destruct (nth_error (s_l2v s) (nlevel nd)) as [v|] eqn:Ev;
    [|apply nth_error_None in Ev; unfold nlevels in Hlv; lia].
  exists v. rewrite Hl. split; [exact Ev|]. intros a.
  destruct (Hs (choice_of s a) (choice_of_bchoice s a)) as [S0 S1].
  unfold cof, cbfun_of. split.
  - rewrite S0. rewrite (semc_ext s H _ e _ _ (fun l _ => choice_of_upd s a v (nlevel nd) true H Ev l)).
    reflexivity.
  - rewrite S1. rewrite (semc_ext s H _ e _ _ (fun l _ => choice_of_upd s a v (nlevel nd) false H Ev l)).
    reflexivity.
Qed.

(** [cofactors] returns [None] exactly for the two constant edges *)
Theorem ccofactors_none : forall s e, BcOK s -> ref_ok s (eref e) ->
  (ccofactors s e = None <-> exists t, eref e = RT t).
Proof.
  intros s e B Hok. unfold ccofactors. destruct (eref e) as [t|id] eqn:Er.
  - split; [eauto | reflexivity].
  - destruct Hok as [nd En]. rewrite En.
    destruct (bcdd_children s id nd B En) as [a [b Ech]]. unfold ccofs. rewrite Ech.
    split; [discriminate | intros [t Et]; discriminate].
Qed.

(** ** Constants and variables *)

Theorem cmk_const_sem : forall s b, BcOK s ->
  exists r, cmk_const s b = Some r /\ DenC s r (fun _ => b).
Proof. intros s b B. unfold cmk_const. apply cget_terminal_den. exact B. Qed.

Theorem cmk_var_sem : forall s v neg, BcOK s -> v < nlevels s ->
  exists lvl s' r, nth_error (s_v2l s) v = Some lvl /\ cmk_var s v neg = Some (s', r) /\
    BcOK s' /\ extends s s' /\
    DenC s' r (fun c => xorb neg (Nat.eqb (c lvl) 0)).
Proof.
  intros s v neg B Hv. pose proof (bc_wf s B) as H.
  assert (Hv' : v < length (s_v2l s)) by (rewrite (wf_perm_len s H); exact Hv).
  destruct (wf_perm_v2l s H v Hv') as [lvl [E1 E2]].
  assert (Hlvl : lvl < nlevels s) by (unfold nlevels; apply nth_error_Some; congruence).
  destruct (cget_terminal_den s true B) as [t [Et Dt]].
  destruct (cget_terminal_den s false B) as [f [Ef Df]].
  unfold cmk_var. rewrite E1, Et, Ef.
  (* the node is what [reduce] builds from the two terminal edges *)
  assert (Htf : t <> f).
  { intros ->. pose proof (denc_unique s f _ _ Dt Df (fun _ => 0) ltac:(intros l; simpl; lia)). discriminate. }
  assert (Tt : etag t = false).
  { unfold cget_terminal in Et. destruct (bc_term_id s); inversion Et. reflexivity. }
  assert (Hmk : cmk_node s lvl t f =
                (let '(s', r) := get_or_insert s lvl [t; f] in (s', mkEdge (eref r) false))).
  { unfold cmk_node. destruct (edge_eqb t f) eqn:Eq; [apply edge_eqb_true in Eq; contradiction|].
    rewrite Tt. reflexivity. }
  destruct (get_or_insert s lvl [t; f]) as [s' r] eqn:Eg.
  assert (I1 : indep (fun _ : nat -> nat => true) (S lvl)) by (intros x y _ _ _; reflexivity).
  assert (I0 : indep (fun _ : nat -> nat => false) (S lvl)) by (intros x y _ _ _; reflexivity).
  destruct (cnode_step s lvl t f _ _ s' _ B Hlvl Dt Df I1 I0 Hmk) as [B' [X D]].
  exists lvl, s', (mkEdge (eref r) neg). split; [reflexivity|]. split; [reflexivity|].
  split; [exact B'|]. split; [exact X|].
  replace (mkEdge (eref r) neg) with (retag neg (mkEdge (eref r) false))
    by (unfold retag; simpl; destruct neg; reflexivity).
  apply (denc_ext s' _ _ _ (denc_retag s' _ _ neg D)).
  intros c _. cbv beta. destruct (Nat.eqb (c lvl) 0); reflexivity.
Qed.

(** in terms of assignments: the (negated) variable *)
Theorem cmk_var_bfun : forall s v neg, BcOK s -> v < nlevels s ->
  exists s' r, cmk_var s v neg = Some (s', r) /\ BcOK s' /\ extends s s' /\ ref_ok s' (eref r) /\
    forall a, cbfun_of s' r a = xorb neg (var_s v a).
Proof.
  intros s v neg B Hv.
  destruct (cmk_var_sem s v neg B Hv) as [lvl [s' [r [E1 [Em [B' [X D]]]]]]].
  exists s', r. split; [exact Em|]. split; [exact B'|]. split; [exact X|]. split; [apply (proj1 D)|].
  intros a. rewrite (cbfun_of_den s' r _ D). unfold var_s, choice_of.
  pose proof (bc_wf s B) as H.
  assert (Hv' : v < length (s_v2l s)) by (rewrite (wf_perm_len s H); exact Hv).
  destruct (wf_perm_v2l s H v Hv') as [lvl' [F1 F2]]. rewrite E1 in F1. inversion F1; subst lvl'.
  rewrite (ext_l2v _ _ X), F2. destruct (a v); reflexivity.
Qed.

(** ** The operators in terms of Boolean functions of assignments *)

Theorem capply_not_bfun : forall C s (c : C) f, BcOK s -> ref_ok s (eref f) ->
  exists r, capply_not C s c f = Some (s, c, r) /\ ref_ok s (eref r) /\
    forall a, cbfun_of s r a = lift1 negb (cbfun_of s f) a.
Proof.
  intros C s c f B Hf. destruct (denc_exists s f B Hf) as [phi D].
  exists (enot f). split; [reflexivity|]. split; [exact Hf|]. intros a. unfold lift1.
  rewrite (cbfun_of_den s _ _ (denc_not s f phi D)), (cbfun_of_den s f phi D). reflexivity.
Qed.

Theorem capply_op_bfun : forall lt C cget cadd, lossyC cget cadd ->
  forall o s (c : C) f g,
  BcOK s -> CacheOKC cget s c -> ref_ok s (eref f) -> ref_ok s (eref g) ->
  exists s' c' r, capply_op lt C cget cadd (S (nlevels s)) s c o f g = Some (s', c', r) /\
    BcOK s' /\ extends s s' /\
    forall a, cbfun_of s' r a = lift2 o (cbfun_of s f) (cbfun_of s g) a.
Proof.
  intros lt C cget cadd L o s c f g B O Hf Hg.
  destruct (denc_exists s f B Hf) as [phi Df]. destruct (denc_exists s g B Hg) as [psi Dg].
  destruct (capply_op_ok lt C cget cadd L o (S (nlevels s)) s c f g phi psi B O Df Dg ltac:(lia))
    as [s' [c' [r [E [B' [X [_ [D' _]]]]]]]].
  exists s', c', r. split; [exact E|]. split; [exact B'|]. split; [exact X|].
  intros a. unfold lift2.
  rewrite (cbfun_of_den s' r _ D'), (cbfun_of_den s f phi Df), (cbfun_of_den s g psi Dg).
  unfold choice_of. rewrite (ext_l2v _ _ X). reflexivity.
Qed.

Theorem capply_ite_bfun : forall lt C cget cadd, lossyC cget cadd ->
  forall s (c : C) f g h,
  BcOK s -> CacheOKC cget s c -> ref_ok s (eref f) -> ref_ok s (eref g) -> ref_ok s (eref h) ->
  exists s' c' r, capply_ite lt C cget cadd (S (nlevels s)) s c f g h = Some (s', c', r) /\
    BcOK s' /\ extends s s' /\
    forall a, cbfun_of s' r a = ite_s (cbfun_of s f) (cbfun_of s g) (cbfun_of s h) a.
Proof.
  intros lt C cget cadd L s c f g h B O Hf Hg Hh.
  destruct (denc_exists s f B Hf) as [phi Df]. destruct (denc_exists s g B Hg) as [psi Dg].
  destruct (denc_exists s h B Hh) as [theta Dh].
  destruct (capply_ite_ok lt C cget cadd L (S (nlevels s)) s c f g h phi psi theta B O Df Dg Dh ltac:(lia))
    as [s' [c' [r [E [B' [X [_ [D' _]]]]]]]].
  exists s', c', r. split; [exact E|]. split; [exact B'|]. split; [exact X|].
  intros a. unfold ite_s.
  rewrite (cbfun_of_den s' r _ D'), (cbfun_of_den s f phi Df), (cbfun_of_den s g psi Dg),
          (cbfun_of_den s h theta Dh).
  unfold choice_of. rewrite (ext_l2v _ _ X). reflexivity.
Qed.
