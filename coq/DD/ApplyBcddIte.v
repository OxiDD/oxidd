(** * Correctness of the BCDD apply algorithms, part 2: [apply_ite]

    [capply_ite_ok]: for every well-formed BCDD table, correct cache of any
    lossy implementation, operand order and operand triple, [apply_ite]
    (DD/ApplyBcdd.v [capply_ite]: the nine terminal short-cuts that reduce to
    [and] / [xor] and tag flips, the cache, the three-way Shannon expansion)
    returns with fuel [S (nlevels s)] an edge denoting
    [if f then g else h], in a well-formed extension of the table, with a
    correct cache; and if that function already has an edge, exactly that
    edge and an unchanged table. *)

From Coq Require Import List NArith PArith Bool Arith Lia FMapPositive.
From OxiVerif Require Import DD.Table DD.TableProofs DD.Canon DD.CanonBcdd DD.Sem DD.Build DD.BuildProofs
  DD.PickInsert DD.Apply DD.ApplyProofs DD.ApplyBcdd DD.ApplyBcddProofs.
Import ListNotations.

Section IteSec.
Variable lt : edge -> edge -> bool.
Variable C : Type.
Variable cget : C -> N -> list edge -> option edge.
Variable cadd : C -> N -> list edge -> edge -> C.
Hypothesis Hlossy : lossyC cget cadd.

Notation ROK := (cresult_ok cget).
Notation COK := (CacheOKC cget).

(** the step after the terminal cases, for any [rec] that is correct on
    operands one level further down *)
Lemma cite_step_ok : forall n (rec : snap -> C -> edge -> edge -> edge -> cres C),
  (forall s c f g h phi psi theta, BcOK s -> COK s c ->
     DenC s f phi -> DenC s g psi -> DenC s h theta ->
     nlevels s - Nat.min (Nat.min (rlevel s (eref f)) (rlevel s (eref g))) (rlevel s (eref h)) < n ->
     ROK s c (rec s c f g h) (fun c0 => if phi c0 then psi c0 else theta c0)) ->
  forall s c f idf fnd g idg gnd h idh hnd phi psi theta,
    BcOK s -> COK s c -> DenC s f phi -> DenC s g psi -> DenC s h theta ->
    eref f = RN idf -> find_node s idf = Some fnd ->
    eref g = RN idg -> find_node s idg = Some gnd ->
    eref h = RN idh -> find_node s idh = Some hnd ->
    nlevels s - Nat.min (Nat.min (nlevel fnd) (nlevel gnd)) (nlevel hnd) < S n ->
    ROK s c (cite_step C cget cadd rec s c f fnd g gnd h hnd)
        (fun c0 => if phi c0 then psi c0 else theta c0).
Proof.
  intros n rec IH s c f idf fnd g idg gnd h idh hnd phi psi theta B O Df Dg Dh
    Erf Ef Erg Eg Erh Eh Hfuel.
  pose proof (bc_wf s B) as H.
  pose proof (wf_level s H idf fnd Ef) as Hlf. pose proof (wf_level s H idg gnd Eg) as Hlg.
  pose proof (wf_level s H idh hnd Eh) as Hlh.
  unfold cite_step.
  destruct (cget c ccode_ite [f; g; h]) as [r|] eqn:Ec.
  - destruct (O _ _ _ Ec eq_refl) as [pa [pb [pc [Da [Db [Dc Dr]]]]]].
    apply cresult_ok_here; auto. apply (denc_ext s r _ _ Dr). intros c0 Hc.
    rewrite (denc_unique s _ pa phi Da Df c0 Hc), (denc_unique s _ pb psi Db Dg c0 Hc),
            (denc_unique s _ pc theta Dc Dh c0 Hc). reflexivity.
  - rewrite (wf_stored s H idf fnd Ef), (wf_stored s H idg gnd Eg), (wf_stored s H idh hnd Eh).
    set (lvl := Nat.min (Nat.min (nlevel fnd) (nlevel gnd)) (nlevel hnd)) in *. cbv zeta.
    assert (Hmf : lvl <= nlevel fnd) by apply (Nat.le_trans _ _ _ (Nat.le_min_l _ _) (Nat.le_min_l _ _)).
    assert (Hmg : lvl <= nlevel gnd) by apply (Nat.le_trans _ _ _ (Nat.le_min_l _ _) (Nat.le_min_r _ _)).
    assert (Hmh : lvl <= nlevel hnd) by apply Nat.le_min_r.
    assert (Hlvl : lvl < nlevels s) by apply (Nat.le_lt_trans _ _ _ Hmh Hlh).
    destruct (ccof2_ok s f idf fnd phi lvl B Df Erf Ef Hmf) as [ft [fe [Ecf [Dft [Dfe [Lft Lfe]]]]]].
    destruct (ccof2_ok s g idg gnd psi lvl B Dg Erg Eg Hmg) as [gt' [ge [Ecg [Dgt [Dge [Lgt Lge]]]]]].
    destruct (ccof2_ok s h idh hnd theta lvl B Dh Erh Eh Hmh) as [ht [he [Ech [Dht [Dhe [Lht Lhe]]]]]].
    rewrite Ecf, Ecg, Ech.
    rewrite <- (rlevel_node s idf fnd Ef), <- Erf in Hmf. rewrite <- (rlevel_node s idg gnd Eg), <- Erg in Hmg.
    rewrite <- (rlevel_node s idh hnd Eh), <- Erh in Hmh.
    apply (cshannon_step C cget cadd Hlossy s c lvl (fun c0 => if phi c0 then psi c0 else theta c0)
             ccode_ite [f; g; h] _ (fun s1 c1 => rec s1 c1 fe ge he)); [exact B | exact Hlvl | | | |].
    + intros x y Hx Hy Exy.
      rewrite (denc_indep_le s f phi lvl H Df Hmf x y Hx Hy Exy),
              (denc_indep_le s g psi lvl H Dg Hmg x y Hx Hy Exy),
              (denc_indep_le s h theta lvl H Dh Hmh x y Hx Hy Exy).
      reflexivity.
    + apply (IH s c ft gt' ht _ _ _ B O Dft Dgt Dht). apply (fuel_below3 _ lvl _ _ _ _ Hfuel Hlvl Lft Lgt Lht).
    + intros s1 c1 B1 X1 O1.
      apply (IH s1 c1 fe ge he _ _ _ B1 O1 (denc_extends s s1 _ _ B X1 Dfe)
               (denc_extends s s1 _ _ B X1 Dge) (denc_extends s s1 _ _ B X1 Dhe)).
      rewrite (ext_nlevels _ _ X1), (ext_rlevel _ _ _ X1 (proj1 Dfe)),
              (ext_rlevel _ _ _ X1 (proj1 Dge)), (ext_rlevel _ _ _ X1 (proj1 Dhe)).
      apply (fuel_below3 _ lvl _ _ _ _ Hfuel Hlvl Lfe Lge Lhe).
    + intros s3 r X03 Dres _. exists phi, psi, theta.
      split; [apply (denc_extends s s3 _ _ B X03 Df)|].
      split; [apply (denc_extends s s3 _ _ B X03 Dg)|].
      split; [apply (denc_extends s s3 _ _ B X03 Dh) | exact Dres].
Qed.

Lemma capply_ite_S : forall n s c f g h,
  capply_ite lt C cget cadd (S n) s c f g h =
    if ref_eqb (eref g) (eref h) then
      if Bool.eqb (etag g) (etag h) then Some (s, c, g)
      else onot C (capply_bin lt C cget cadd (S n) s c CXor f g)
    else if ref_eqb (eref f) (eref g) then
      if Bool.eqb (etag f) (etag g) then onot C (capply_bin lt C cget cadd (S n) s c CAnd (enot f) (enot h))
      else capply_bin lt C cget cadd (S n) s c CAnd (enot f) h
    else if ref_eqb (eref f) (eref h) then
      if Bool.eqb (etag f) (etag h) then capply_bin lt C cget cadd (S n) s c CAnd f g
      else onot C (capply_bin lt C cget cadd (S n) s c CAnd f (enot g))
    else
      match cnode s f with
      | None => None
      | Some NVT => Some (s, c, if etag f then h else g)
      | Some (NVI fnode) =>
        match cnode s g, cnode s h with
        | Some (NVI gnode), Some (NVI hnode) =>
          cite_step C cget cadd (fun s' c' f' g' h' => capply_ite lt C cget cadd n s' c' f' g' h')
                    s c f fnode g gnode h hnode
        | Some NVT, Some (NVI _) =>
          if etag g then capply_bin lt C cget cadd (S n) s c CAnd (enot f) h
          else onot C (capply_bin lt C cget cadd (S n) s c CAnd (enot f) (enot h))
        | Some _, Some NVT =>
          if etag h then capply_bin lt C cget cadd (S n) s c CAnd f g
          else onot C (capply_bin lt C cget cadd (S n) s c CAnd f (enot g))
        | _, _ => None
        end
      end.
Proof. reflexivity. Qed.

(* pointwise equality of two functions by cases on the three values; the
   facts about the values are moved into the goal, so that [simpl] never touches
   the context (there it would unfold [capply_bin (S n)] in every hypothesis) *)
Local Ltac pw3 phi psi theta :=
  let c0 := fresh "c0" in let Hc := fresh "Hc" in
  intros c0 Hc; cbv beta;
  repeat match goal with
         | Hx : forall c, bchoice c -> _ = _ |- _ => generalize (Hx c0 Hc); clear Hx
         end;
  clear - c0; destruct (phi c0); destruct (psi c0); destruct (theta c0); simpl; congruence.

Theorem capply_ite_ok : forall fuel s c f g h phi psi theta,
  BcOK s -> COK s c -> DenC s f phi -> DenC s g psi -> DenC s h theta ->
  nlevels s - Nat.min (Nat.min (rlevel s (eref f)) (rlevel s (eref g))) (rlevel s (eref h)) < fuel ->
  ROK s c (capply_ite lt C cget cadd fuel s c f g h)
      (fun c0 => if phi c0 then psi c0 else theta c0).
Proof.
  induction fuel as [|n IH]; intros s c f g h phi psi theta B O Df Dg Dh Hfuel; [lia|].
  pose proof (denc_not s f phi Df) as Dnf. pose proof (denc_not s g psi Dg) as Dng.
  pose proof (denc_not s h theta Dh) as Dnh.
  (* the calls of [apply_bin] made by the terminal cases *)
  assert (Hfg : nlevels s - Nat.min (rlevel s (eref f)) (rlevel s (eref g)) < S n) by lia.
  assert (Hfh : nlevels s - Nat.min (rlevel s (eref f)) (rlevel s (eref h)) < S n) by lia.
  pose proof (capply_bin_ok lt C cget cadd Hlossy CXor (S n) s c f g phi psi B O Df Dg Hfg) as Rxor.
  pose proof (capply_bin_ok lt C cget cadd Hlossy CAnd (S n) s c (enot f) (enot h) _ _ B O Dnf Dnh Hfh) as Rnfnh.
  pose proof (capply_bin_ok lt C cget cadd Hlossy CAnd (S n) s c (enot f) h _ _ B O Dnf Dh Hfh) as Rnfh.
  pose proof (capply_bin_ok lt C cget cadd Hlossy CAnd (S n) s c f g _ _ B O Df Dg Hfg) as Rfg.
  pose proof (capply_bin_ok lt C cget cadd Hlossy CAnd (S n) s c f (enot g) _ _ B O Df Dng Hfg) as Rfng.
  pose proof (cresult_ok_not C cget _ _ _ _ Rxor) as Rnxor.
  pose proof (cresult_ok_not C cget _ _ _ _ Rnfnh) as Rnnfnh.
  pose proof (cresult_ok_not C cget _ _ _ _ Rfng) as Rnfng.
  cbv beta in *.
  (* equalities between operands, as facts about their functions *)
  assert (Fsame : forall a b pa pb, DenC s a pa -> DenC s b pb -> eref a = eref b -> etag a = etag b ->
            forall c0, bchoice c0 -> pa c0 = pb c0).
  { intros a b pa pb Da Db Er Et. assert (a = b) by (apply edge_ext; assumption). subst b.
    apply (denc_unique s a pa pb Da Db). }
  assert (Fopp : forall a b pa pb, DenC s a pa -> DenC s b pb -> eref a = eref b -> etag a = negb (etag b) ->
            forall c0, bchoice c0 -> pa c0 = negb (pb c0)).
  { intros a b pa pb Da Db Er Et. assert (a = enot b) by (apply edge_ext; simpl; assumption). subst a.
    apply (denc_unique s (enot b) pa _ Da (denc_not s b pb Db)). }
  assert (Fterm : forall a pa, DenC s a pa -> cnode s a = Some NVT ->
            forall c0, bchoice c0 -> pa c0 = negb (etag a)).
  { intros a pa Da V. destruct (cnode_NVT s a V) as [t Et]. apply (denc_term s a t pa Da Et). }
  rewrite capply_ite_S.
  destruct (ref_eqb (eref g) (eref h)) eqn:Egh.
  { apply ref_eqb_true in Egh. destruct (Bool.eqb (etag g) (etag h)) eqn:Tgh.
    - apply bool_eqb_true in Tgh. pose proof (Fsame g h psi theta Dg Dh Egh Tgh) as U.
      apply cresult_ok_here; auto. apply (denc_ext s g psi); [exact Dg|]. clear Fsame Fopp Fterm. pw3 phi psi theta.
    - apply bool_eqb_false in Tgh. pose proof (Fopp g h psi theta Dg Dh Egh Tgh) as U.
      apply (cresult_ok_ext C cget s c _ _ _ Rnxor). clear Fsame Fopp Fterm. pw3 phi psi theta. }
  destruct (ref_eqb (eref f) (eref g)) eqn:Efg.
  { apply ref_eqb_true in Efg. destruct (Bool.eqb (etag f) (etag g)) eqn:Tfg.
    - apply bool_eqb_true in Tfg. pose proof (Fsame f g phi psi Df Dg Efg Tfg) as U.
      apply (cresult_ok_ext C cget s c _ _ _ Rnnfnh). clear Fsame Fopp Fterm. pw3 phi psi theta.
    - apply bool_eqb_false in Tfg. pose proof (Fopp f g phi psi Df Dg Efg Tfg) as U.
      apply (cresult_ok_ext C cget s c _ _ _ Rnfh). clear Fsame Fopp Fterm. pw3 phi psi theta. }
  destruct (ref_eqb (eref f) (eref h)) eqn:Efh.
  { apply ref_eqb_true in Efh. destruct (Bool.eqb (etag f) (etag h)) eqn:Tfh.
    - apply bool_eqb_true in Tfh. pose proof (Fsame f h phi theta Df Dh Efh Tfh) as U.
      apply (cresult_ok_ext C cget s c _ _ _ Rfg). clear Fsame Fopp Fterm. pw3 phi psi theta.
    - apply bool_eqb_false in Tfh. pose proof (Fopp f h phi theta Df Dh Efh Tfh) as U.
      apply (cresult_ok_ext C cget s c _ _ _ Rnfng). clear Fsame Fopp Fterm. pw3 phi psi theta. }
  clear Fsame Fopp.
  destruct (cnode_total s f (proj1 Df)) as [vf Vf].
  destruct (cnode_total s g (proj1 Dg)) as [vg Vg].
  destruct (cnode_total s h (proj1 Dh)) as [vh Vh].
  rewrite Vf. destruct vf as [fnd|].
  2:{ pose proof (Fterm f phi Df Vf) as U. clear Fterm.
      apply cresult_ok_here; auto. destruct (etag f) eqn:Tf.
      - apply (denc_ext s h theta); [exact Dh|]. pw3 phi psi theta.
      - apply (denc_ext s g psi); [exact Dg|]. pw3 phi psi theta. }
  rewrite Vg, Vh. destruct vg as [gnd|], vh as [hnd|].
  - (* all three inner *)
    clear Fterm.
    destruct (cnode_NVI s f fnd Vf) as [idf [Erf Ef]]. destruct (cnode_NVI s g gnd Vg) as [idg [Erg Eg]].
    destruct (cnode_NVI s h hnd Vh) as [idh [Erh Eh]].
    rewrite Erf, Erg, Erh, (rlevel_node s idf fnd Ef), (rlevel_node s idg gnd Eg),
            (rlevel_node s idh hnd Eh) in Hfuel.
    apply (cite_step_ok n _ IH s c f idf fnd g idg gnd h idh hnd phi psi theta); auto.
  - (* g inner, h terminal *)
    pose proof (Fterm h theta Dh Vh) as U. clear Fterm. destruct (etag h) eqn:Th.
    + apply (cresult_ok_ext C cget s c _ _ _ Rfg). pw3 phi psi theta.
    + apply (cresult_ok_ext C cget s c _ _ _ Rnfng). pw3 phi psi theta.
  - (* g terminal, h inner *)
    pose proof (Fterm g psi Dg Vg) as U. clear Fterm. destruct (etag g) eqn:Tg.
    + apply (cresult_ok_ext C cget s c _ _ _ Rnfh). pw3 phi psi theta.
    + apply (cresult_ok_ext C cget s c _ _ _ Rnnfnh). pw3 phi psi theta.
  - (* g and h terminal (excluded by gu <> hu in a table with one terminal; the code's
       [(_, Terminal)] arm is sound nevertheless) *)
    pose proof (Fterm h theta Dh Vh) as U. pose proof (Fterm g psi Dg Vg) as U'. clear Fterm.
    destruct (etag h) eqn:Th.
    + apply (cresult_ok_ext C cget s c _ _ _ Rfg). pw3 phi psi theta.
    + apply (cresult_ok_ext C cget s c _ _ _ Rnfng). pw3 phi psi theta.
Qed.

End IteSec.
