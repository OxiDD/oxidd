(** * Correctness of the BCDD apply algorithms (DD/ApplyBcdd.v), part 1

    - [BcOK]: the invariant - well-formed BCDD table with its single
      terminal, decided by [bcok_b] (the same condition as [BcddOK] of the
      cube-picking development DD/PickBcdd.v, restated here so that the two
      developments do not depend on each other);
    - [DenC s e phi]: edge [e] (reference + complement tag) of table [s]
      denotes the Boolean function [phi] of the choice (= assignment by
      level), in terms of the interpreter [semc];
    - [denc_not], [denc_retag], [denc_child]: tag flips and cofactors;
    - [denc_level], [denc_canon]: consequences of canonicity (DD/CanonBcdd.v);
    - [cnode_step], [cmk_node_stable]: [reduce] = [cmk_node];
    - [cterminal_sound]: every case of [terminal_and] / [terminal_xor];
    - [CacheOKC], [cresult_ok], [capply_bin_ok]: with fuel [S (nlevels s)]
      [apply_bin] returns (never [None]) a well-formed extension of the
      table, a correct cache and an edge denoting the connective - for every
      cache implementation that only serves what was added ([lossyC]) and
      every operand order [lt];
    - [capply_op_ok]: the eight public operators derived by tag flips. *)

From Coq Require Import List NArith PArith Bool Arith Lia FMapPositive.
From OxiVerif Require Import DD.Table DD.TableProofs DD.Canon DD.CanonBcdd DD.Sem DD.Build DD.BuildProofs
  DD.PickInsert DD.Apply DD.ApplyProofs DD.ApplyBcdd.
Import ListNotations.

(** ** The invariant *)

Record BcOK (s : snap) : Prop := mkBcOK {
  bc_wf : WF s;
  bc_kind : s_kind s = KBcdd;
  bc_term : length (s_terms s) = 1
}.

Lemma kind_eqb_eq : forall a b, kind_eqb a b = true <-> a = b.
Proof. intros [] []; simpl; split; intro E; try discriminate; reflexivity. Qed.

Theorem bcok_b_spec : forall s, bcok_b s = true <-> BcOK s.
Proof.
  intros s. unfold bcok_b. split.
  - intros Hb. apply andb_prop in Hb. destruct Hb as [Hb C]. apply andb_prop in Hb. destruct Hb as [A B].
    constructor; [apply wf_b_spec; exact A | apply kind_eqb_eq; exact B | apply Nat.eqb_eq; exact C].
  - intros [A B C]. apply andb_true_intro. split; [apply andb_true_intro; split|].
    + apply wf_b_spec. exact A.
    + apply kind_eqb_eq. exact B.
    + apply Nat.eqb_eq. exact C.
Qed.

Lemma bc_terms_kind : forall s, BcOK s -> terms_kind s.
Proof. intros s B. unfold terms_kind. rewrite (bc_kind s B), (bc_term s B). lia. Qed.

Lemma bc_term_some : forall s, BcOK s -> exists t v, bc_term_id s = Some t /\ term_val s t = Some v.
Proof.
  intros s B. pose proof (bc_term s B) as L. unfold bc_term_id, term_val.
  destruct (s_terms s) as [|[t v] [|]]; simpl in L; try discriminate.
  exists t, v. split; [reflexivity|]. simpl. rewrite N.eqb_refl. reflexivity.
Qed.

Lemma bcok_extends : forall s s', BcOK s -> extends s s' -> WF s' -> BcOK s'.
Proof.
  intros s s' B X W. constructor; [exact W | rewrite (ext_kind _ _ X); apply (bc_kind s B) |
    rewrite (ext_terms _ _ X); apply (bc_term s B)].
Qed.

(** ** Edges *)

Lemma edge_eta : forall e : edge, mkEdge (eref e) (etag e) = e.
Proof. intros [r t]. reflexivity. Qed.

Lemma enot_invol : forall e, enot (enot e) = e.
Proof. intros [r t]. unfold enot. simpl. rewrite negb_involutive. reflexivity. Qed.

Lemma enot_retag : forall e, enot e = retag true e.
Proof. intros e. reflexivity. Qed.

Lemma retag_false : forall e, retag false e = e.
Proof. intros [r []]; reflexivity. Qed.

Lemma edge_eqb_true : forall a b, edge_eqb a b = true -> a = b.
Proof. intros a b. apply edge_eqb_eq. Qed.

Lemma edge_eqb_false : forall a b, edge_eqb a b = false -> a <> b.
Proof. intros a b E Hab. apply edge_eqb_eq in Hab. congruence. Qed.

Lemma bool_eqb_true : forall a b, Bool.eqb a b = true -> a = b.
Proof. intros [] [] E; simpl in E; congruence. Qed.

Lemma bool_eqb_false : forall a b, Bool.eqb a b = false -> a = negb b.
Proof. intros [] [] E; simpl in *; congruence. Qed.

(** ** The interpreter and tags *)

Lemma semc_retag : forall s f b e c,
  semc s f (retag b e) c = option_map (xorb b) (semc s f e c).
Proof.
  intros s f b e c. destruct (eref e) as [t|id] eqn:Er.
  - rewrite (semc_T s f (retag b e) c t) by exact Er. rewrite (semc_T s f e c t Er).
    simpl. destruct b, (etag e); reflexivity.
  - destruct f as [|f].
    + rewrite (semc_O s (retag b e) c id) by exact Er. rewrite (semc_O s e c id Er). reflexivity.
    + rewrite (semc_S s f (retag b e) c id) by exact Er. rewrite (semc_S s f e c id Er).
      destruct (find_node s id) as [nd|]; [|reflexivity].
      destruct (nth_error (nchildren nd) (c (nlevel nd))) as [x|]; [|reflexivity].
      destruct (semc s f x c) as [v|]; [|reflexivity].
      simpl. rewrite xorb_assoc. reflexivity.
Qed.

Lemma semc_enot : forall s f e c, semc s f (enot e) c = option_map negb (semc s f e c).
Proof.
  intros s f e c. rewrite enot_retag, semc_retag.
  destruct (semc s f e c) as [[]|]; reflexivity.
Qed.

(** ** Denotations *)

Definition DenC (s : snap) (e : edge) (phi : (nat -> nat) -> bool) : Prop :=
  ref_ok s (eref e) /\
  forall c, bchoice c -> semc s (S (nlevels s)) e c = Some (phi c).

Lemma bchoice_okc : forall s c, BcOK s -> (choice_ok s c <-> bchoice c).
Proof. intros s c B. apply (choice_ok_b s (bc_kind s B)). Qed.

Lemma denc_ext : forall s e phi phi', DenC s e phi ->
  (forall c, bchoice c -> phi c = phi' c) -> DenC s e phi'.
Proof. intros s e phi phi' [A B] E. split; [exact A|]. intros c Hc. rewrite <- E by exact Hc. auto. Qed.

Lemma denc_unique : forall s e phi phi', DenC s e phi -> DenC s e phi' ->
  forall c, bchoice c -> phi c = phi' c.
Proof.
  intros s e phi phi' [_ A] [_ B] c Hc. specialize (A c Hc). specialize (B c Hc). congruence.
Qed.

Lemma denc_exists : forall s e, BcOK s -> ref_ok s (eref e) -> exists phi, DenC s e phi.
Proof.
  intros s e B Hok.
  exists (fun c => match semc s (S (nlevels s)) e c with Some b => b | None => false end).
  split; [exact Hok|]. intros c Hc.
  pose proof (rlevel_le s (bc_wf s B) (eref e)).
  destruct (semc_total s (bc_wf s B) (S (nlevels s)) e c Hok (proj2 (bchoice_okc s c B) Hc) ltac:(lia))
    as [v Ev].
  rewrite Ev. reflexivity.
Qed.

Lemma denc_extends : forall s s' e phi, BcOK s -> extends s s' -> DenC s e phi -> DenC s' e phi.
Proof.
  intros s s' e phi B X [A D]. split; [apply (ext_ref_ok _ _ _ X A)|].
  intros c Hc. rewrite (ext_nlevels _ _ X), (semc_extends s s' (bc_wf s B) X _ _ c A). auto.
Qed.

Lemma denc_retag : forall s e phi b, DenC s e phi -> DenC s (retag b e) (fun c => xorb b (phi c)).
Proof.
  intros s e phi b [A D]. split; [exact A|]. intros c Hc. rewrite semc_retag, (D c Hc). reflexivity.
Qed.

Lemma denc_not : forall s e phi, DenC s e phi -> DenC s (enot e) (fun c => negb (phi c)).
Proof.
  intros s e phi [A D]. split; [exact A|]. intros c Hc. rewrite semc_enot, (D c Hc). reflexivity.
Qed.

Lemma denc_not_inv : forall s e phi, DenC s (enot e) phi -> DenC s e (fun c => negb (phi c)).
Proof. intros s e phi D. rewrite <- (enot_invol e). apply denc_not. exact D. Qed.

(** the terminal edges *)
Lemma cget_terminal_den : forall s b, BcOK s ->
  exists e, cget_terminal s b = Some e /\ DenC s e (fun _ => b).
Proof.
  intros s b B. destruct (bc_term_some s B) as [t [v [Et Ev]]].
  unfold cget_terminal. rewrite Et. eexists. split; [reflexivity|].
  split; [exists v; exact Ev|]. intros c _.
  rewrite (semc_T _ _ _ _ t) by reflexivity. simpl. rewrite negb_involutive. reflexivity.
Qed.

(** an edge to the terminal denotes the constant given by its tag *)
Lemma denc_term : forall s e t phi, DenC s e phi -> eref e = RT t ->
  forall c, bchoice c -> phi c = negb (etag e).
Proof.
  intros s e t phi [_ D] Er c Hc. specialize (D c Hc). rewrite (semc_T _ _ _ _ t Er) in D. congruence.
Qed.

(** ** Independence of the levels above an edge *)

Lemma denc_indep : forall s e phi, WF s -> DenC s e phi -> indep phi (rlevel s (eref e)).
Proof.
  intros s e phi H [_ D] c c' Hc Hc' E.
  pose proof (D c Hc) as A. pose proof (D c' Hc') as A'.
  rewrite (semc_ext s H _ e c c' E) in A. congruence.
Qed.

Lemma denc_indep_le : forall s e phi L, WF s -> DenC s e phi -> L <= rlevel s (eref e) -> indep phi L.
Proof. intros s e phi L H D Hle. apply (indep_mono phi _ L (denc_indep s e phi H D) Hle). Qed.

Lemma denc_skip : forall s e phi lvl i, WF s -> DenC s e phi -> lvl < rlevel s (eref e) -> i < 2 ->
  DenC s e (cofn phi lvl i).
Proof.
  intros s e phi lvl i H D Hl Hi. apply (denc_ext s e phi); [exact D|].
  intros c Hc. unfold cofn. apply (denc_indep s e phi H D); [exact Hc | apply bchoice_upd; auto|].
  intros l Hle. unfold cupd. destruct (Nat.eqb_spec l lvl); [lia | reflexivity].
Qed.

(** ** Children = Shannon cofactors (with the incoming tag pushed down) *)

Lemma bcdd_children : forall s id nd, BcOK s -> find_node s id = Some nd ->
  exists a b, nchildren nd = [a; b].
Proof.
  intros s id nd B E. pose proof (wf_arity s (bc_wf s B) id nd E) as L.
  rewrite (bc_kind s B) in L. simpl in L.
  destruct (nchildren nd) as [|a [|b [|x r]]]; simpl in L; try discriminate. eauto.
Qed.

Lemma denc_child : forall s e id nd i x phi, BcOK s -> DenC s e phi -> eref e = RN id ->
  find_node s id = Some nd -> nth_error (nchildren nd) i = Some x ->
  DenC s (retag (etag e) x) (cofn phi (nlevel nd) i).
Proof.
  intros s e id nd i x phi B [_ D] Er E He. pose proof (bc_wf s B) as H.
  split; [apply (child_nth s H id nd i x E He)|].
  intros c Hc. rewrite semc_retag.
  pose proof (child_semc s H e id nd i x c Er E He) as Sx. unfold semcn in Sx.
  pose proof (child_index_b s H (bc_kind s B) id nd i x E He) as Hi.
  rewrite (D _ (bchoice_upd c (nlevel nd) i Hc Hi)) in Sx.
  destruct (semc s (S (nlevels s)) x c) as [v|]; simpl in Sx; [|discriminate].
  inversion Sx as [S']. unfold cofn. simpl. rewrite S'. reflexivity.
Qed.

(** an edge whose function ignores all levels below [L] sits at level [L] or
    deeper (a consequence of canonicity) *)
Lemma denc_level : forall s e phi L, BcOK s -> DenC s e phi -> L <= nlevels s ->
  indep phi L -> L <= rlevel s (eref e).
Proof.
  intros s e phi L B [Hok D] HL I.
  pose proof (bc_wf s B) as H. pose proof (bc_kind s B) as Hk.
  destruct (le_lt_dec L (rlevel s (eref e))) as [Hle|Hlt]; [exact Hle|]. exfalso.
  destruct (eref e) as [t|id] eqn:Er; [simpl in Hlt; lia|].
  destruct Hok as [nd E]. rewrite (rlevel_node s id nd E) in Hlt.
  apply (proj1 (reduced_bcdd s Hk _ (wf_reduced s H id nd E))).
  intros a b Ha Hb.
  destruct (In_nth_error _ _ Ha) as [i Hi]. destruct (In_nth_error _ _ Hb) as [j Hj].
  destruct (child_nth s H id nd i a E Hi) as [Oa La].
  destruct (child_nth s H id nd j b E Hj) as [Ob Lb].
  apply (canon_bcdd s H Hk (bc_terms_kind s B) a b Oa Ob). intros c Hc.
  apply (bchoice_okc s c B) in Hc.
  pose proof (child_index_b s H Hk id nd i a E Hi) as Hi2.
  pose proof (child_index_b s H Hk id nd j b E Hj) as Hj2.
  pose proof (child_semc s H e id nd i a c Er E Hi) as Sa.
  pose proof (child_semc s H e id nd j b c Er E Hj) as Sb.
  unfold semcn in Sa, Sb.
  rewrite (D _ (bchoice_upd c (nlevel nd) i Hc Hi2)) in Sa.
  rewrite (D _ (bchoice_upd c (nlevel nd) j Hc Hj2)) in Sb.
  apply (omap_xorb_inj (etag e)). rewrite <- Sa, <- Sb. f_equal.
  apply I; try (apply bchoice_upd; assumption).
  intros l Hl. unfold cupd. destruct (Nat.eqb_spec l (nlevel nd)); [lia | reflexivity].
Qed.

(** what [ccof2] returns for a node at or below the split level *)
Lemma ccof2_ok : forall s e id nd phi lvl, BcOK s -> DenC s e phi -> eref e = RN id ->
  find_node s id = Some nd -> lvl <= nlevel nd ->
  exists ft fe, ccof2 e nd lvl = Some (ft, fe) /\
    DenC s ft (cofn phi lvl 0) /\ DenC s fe (cofn phi lvl 1) /\
    lvl < rlevel s (eref ft) /\ lvl < rlevel s (eref fe).
Proof.
  intros s e id nd phi lvl B D Er E Hle. pose proof (bc_wf s B) as H.
  unfold ccof2. rewrite (wf_stored s H id nd E).
  destruct (Nat.eqb_spec (nlevel nd) lvl) as [Heq|Hne].
  - destruct (bcdd_children s id nd B E) as [a [b Ech]]. unfold ccofs. rewrite Ech.
    assert (Ha : nth_error (nchildren nd) 0 = Some a) by (rewrite Ech; reflexivity).
    assert (Hb : nth_error (nchildren nd) 1 = Some b) by (rewrite Ech; reflexivity).
    exists (retag (etag e) a), (retag (etag e) b). subst lvl.
    split; [reflexivity|].
    split; [apply (denc_child s e id nd 0 a phi B D Er E Ha)|].
    split; [apply (denc_child s e id nd 1 b phi B D Er E Hb)|].
    split; [apply (child_nth s H id nd 0 a E Ha) | apply (child_nth s H id nd 1 b E Hb)].
  - assert (Hl : lvl < rlevel s (eref e)) by (rewrite Er, (rlevel_node s id nd E); lia).
    exists e, e. split; [reflexivity|].
    split; [apply denc_skip; auto|]. split; [apply denc_skip; auto|]. auto.
Qed.

(** ** Canonicity inside one table *)

Lemma denc_canon : forall s e1 e2 phi, BcOK s -> DenC s e1 phi -> DenC s e2 phi -> e1 = e2.
Proof.
  intros s e1 e2 phi B [O1 D1] [O2 D2].
  apply (canon_bcdd s (bc_wf s B) (bc_kind s B) (bc_terms_kind s B) e1 e2 O1 O2).
  intros c Hc. apply (bchoice_okc s c B) in Hc. rewrite (D1 c Hc), (D2 c Hc). reflexivity.
Qed.

(** the cofactor of an existing function w.r.t. a level at or above its root exists *)
Lemma denc_cof_exists : forall s e Phi lvl i, BcOK s -> DenC s e Phi ->
  lvl <= rlevel s (eref e) -> lvl < nlevels s -> i < 2 -> exists e', DenC s e' (cofn Phi lvl i).
Proof.
  intros s e Phi lvl i B D Hle Hl Hi. pose proof (bc_wf s B) as H.
  destruct (eref e) as [t|id] eqn:Er.
  - exists e. apply denc_skip; auto. rewrite Er. simpl. exact Hl.
  - pose proof (proj1 D) as O. rewrite Er in O. destruct O as [nd En].
    rewrite (rlevel_node s id nd En) in Hle.
    destruct (ccof2_ok s e id nd Phi lvl B D Er En Hle) as [ft [fe [_ [D0 [D1 _]]]]].
    destruct i as [|[|k]]; [exists ft; exact D0 | exists fe; exact D1 | lia].
Qed.

(** ** [reduce] = [cmk_node] *)

(** the value of an edge to a stored node, one level down *)
Lemma semc_node : forall s id nd tg c x, WF s -> find_node s id = Some nd ->
  nth_error (nchildren nd) (c (nlevel nd)) = Some x ->
  semc s (S (nlevels s)) (mkEdge (RN id) tg) c = option_map (xorb tg) (semc s (S (nlevels s)) x c).
Proof.
  intros s id nd tg c x H E Hx.
  rewrite (semc_S s (nlevels s) (mkEdge (RN id) tg) c id) by reflexivity. rewrite E, Hx.
  destruct (child_nth s H id nd _ x E Hx) as [Ox Lx].
  pose proof (wf_level s H id nd E). pose proof (rlevel_le s H (eref x)).
  rewrite (semc_fuel s H (nlevels s) (S (nlevels s)) x) by (auto; lia).
  destruct (semc s (S (nlevels s)) x c); reflexivity.
Qed.

Lemma all_same_pair : forall a b : edge, a <> b -> ~ all_same [a; b].
Proof. intros a b Hne A. apply Hne. apply A; simpl; auto. Qed.

Lemma cnode_step : forall s lvl t e P0 P1 s' h, BcOK s -> lvl < nlevels s ->
  DenC s t P0 -> DenC s e P1 -> indep P0 (S lvl) -> indep P1 (S lvl) ->
  cmk_node s lvl t e = (s', h) ->
  BcOK s' /\ extends s s' /\
  DenC s' h (fun c => if Nat.eqb (c lvl) 0 then P0 c else P1 c).
Proof.
  intros s lvl t e P0 P1 s' h B Hl Dt De I0 I1 Hm.
  pose proof (bc_wf s B) as H. pose proof (bc_kind s B) as Hk.
  assert (Lt : S lvl <= rlevel s (eref t)) by (apply (denc_level s t P0); auto).
  assert (Le : S lvl <= rlevel s (eref e)) by (apply (denc_level s e P1); auto).
  unfold cmk_node in Hm. destruct (edge_eqb t e) eqn:Ete.
  - (* equal children *)
    apply edge_eqb_true in Ete. subst e. inversion Hm; subst s' h.
    split; [exact B|]. split; [apply extends_refl|].
    apply (denc_ext s t P0); [exact Dt|]. intros c Hc.
    rewrite (denc_unique s t P0 P1 Dt De c Hc). destruct (Nat.eqb (c lvl) 0); reflexivity.
  - apply edge_eqb_false in Ete.
    (* the stored children [ch] and the tag [tg] of the returned edge *)
    set (tg := etag t) in *.
    set (ch := if tg then [untag t; enot e] else [t; e]).
    assert (Hm' : (let '(s1, r) := get_or_insert s lvl ch in (s1, mkEdge (eref r) tg)) = (s', h))
      by (unfold ch; destruct tg; exact Hm).
    clear Hm.
    assert (Hlen : length ch = arity (s_kind s)) by (rewrite Hk; unfold ch; destruct tg; reflexivity).
    assert (Hce : forall x, In x ch -> ref_ok s (eref x) /\ lvl < rlevel s (eref x)).
    { intros x Hx. unfold ch in Hx. destruct tg; simpl in Hx; destruct Hx as [<-|[<-|[]]]; simpl;
        (split; [first [apply (proj1 Dt) | apply (proj1 De)] | lia]). }
    assert (Hred : reduced s ch).
    { unfold reduced. rewrite Hk. unfold ch. destruct tg eqn:Tg.
      - split; [|eexists; split; reflexivity].
        apply all_same_pair. intros A. apply Ete. inversion A as [[Er Tx]].
        apply edge_ext; [exact Er|]. fold tg. rewrite Tg. destruct (etag e); [reflexivity | discriminate].
      - split; [apply all_same_pair; exact Ete|]. exists t. split; [reflexivity | exact Tg]. }
    assert (Htags : s_kind s <> KBcdd -> forall x, In x ch -> etag x = false) by congruence.
    destruct (get_or_insert s lvl ch) as [s1 r] eqn:Eg. inversion Hm'; subst s' h. clear Hm'.
    destruct (goi_any s lvl ch H Hl Hlen Hce Hred Htags s1 r Eg) as [W' [X [id [nd [Er [E' [El Ec]]]]]]].
    pose proof (bcok_extends s s1 B X W') as B'.
    split; [exact B'|]. split; [exact X|]. subst r. simpl eref.
    split; [exists nd; exact E'|]. intros c Hc.
    pose proof (Hc lvl) as Hc2.
    pose proof (denc_extends s s1 t P0 B X Dt) as Dt1.
    pose proof (denc_extends s s1 e P1 B X De) as De1.
    assert (Hch : forall i x, nth_error ch i = Some x -> c lvl = i ->
              semc s1 (S (nlevels s1)) (mkEdge (RN id) tg) c
              = option_map (xorb tg) (semc s1 (S (nlevels s1)) x c)).
    { intros i x Hx Hi. apply (semc_node s1 id nd tg c x W' E'). rewrite El, Ec, Hi. exact Hx. }
    destruct (c lvl) as [|[|k]] eqn:Ecl; [| |lia]; simpl Nat.eqb; cbv iota.
    + unfold ch in Hch. destruct tg eqn:Tg.
      * rewrite (Hch 0 (untag t) eq_refl eq_refl).
        replace (untag t) with (retag true t)
          by (unfold retag, untag; fold tg; rewrite Tg; reflexivity).
        rewrite semc_retag, (proj2 Dt1 c Hc). simpl. destruct (P0 c); reflexivity.
      * rewrite (Hch 0 t eq_refl eq_refl), (proj2 Dt1 c Hc). simpl. destruct (P0 c); reflexivity.
    + unfold ch in Hch. destruct tg eqn:Tg.
      * rewrite (Hch 1 (enot e) eq_refl eq_refl).
        rewrite semc_enot, (proj2 De1 c Hc). simpl. destruct (P1 c); reflexivity.
      * rewrite (Hch 1 e eq_refl eq_refl), (proj2 De1 c Hc). simpl. destruct (P1 c); reflexivity.
Qed.

(** if the function to be built already has an edge, [cmk_node] returns it
    and leaves the table alone *)
Lemma cmk_node_stable : forall s lvl t e P0 P1 s' h r0, BcOK s -> lvl < nlevels s ->
  DenC s t P0 -> DenC s e P1 -> indep P0 (S lvl) -> indep P1 (S lvl) ->
  cmk_node s lvl t e = (s', h) ->
  DenC s r0 (fun c => if Nat.eqb (c lvl) 0 then P0 c else P1 c) ->
  s' = s /\ h = r0.
Proof.
  intros s lvl t e P0 P1 s' h r0 B Hl Dt De I0 I1 Hm D0.
  destruct (cnode_step s lvl t e P0 P1 s' h B Hl Dt De I0 I1 Hm) as [B' [X Dh]].
  assert (Eh : h = r0) by (apply (denc_canon s' _ _ _ B' Dh (denc_extends s s' _ _ B X D0))).
  split; [|exact Eh].
  unfold cmk_node in Hm. destruct (edge_eqb t e); [inversion Hm; reflexivity|].
  assert (Hgoi : forall ch tg, (let '(s1, r) := get_or_insert s lvl ch in (s1, mkEdge (eref r) tg)) = (s', h) ->
            s' = s).
  { intros ch tg Hg. unfold get_or_insert in Hg.
    destruct (find_dup s lvl ch); inversion Hg as [[Es Ehh]]; [reflexivity|].
    exfalso. rewrite <- Eh, <- Ehh in D0. destruct (proj1 D0) as [nd En]. simpl in En.
    rewrite fresh_id_free in En. discriminate. }
  destruct (etag t); eapply Hgoi; exact Hm.
Qed.

(** ** [get_node] *)

Lemma cnode_total : forall s e, ref_ok s (eref e) -> exists v, cnode s e = Some v.
Proof.
  intros s e Hok. unfold cnode. destruct (eref e) as [t|id].
  - destruct Hok as [v E]. rewrite E. eauto.
  - destruct Hok as [nd E]. rewrite E. eauto.
Qed.

Lemma cnode_NVI : forall s e nd, cnode s e = Some (NVI nd) ->
  exists id, eref e = RN id /\ find_node s id = Some nd.
Proof.
  intros s e nd. unfold cnode. destruct (eref e) as [t|id].
  - destruct (term_val s t); discriminate.
  - destruct (find_node s id) as [nd'|] eqn:E; [|discriminate].
    intros X. inversion X; subst. eauto.
Qed.

Lemma cnode_NVT : forall s e, cnode s e = Some NVT -> exists t, eref e = RT t.
Proof.
  intros s e. unfold cnode. destruct (eref e) as [t|id]; [eauto|].
  destruct (find_node s id); discriminate.
Qed.

(** ** Every case of [terminal_and] / [terminal_xor] agrees with the connective *)

Lemma ref_eqb_true : forall a b, ref_eqb a b = true -> a = b.
Proof. intros a b. apply ref_eqb_eq. Qed.

Theorem cterminal_sound : forall s op f g phi psi, BcOK s -> DenC s f phi -> DenC s g psi ->
  match cterminal s op f g with
  | KDone r => DenC s r (fun c => ceval op (phi c) (psi c))
  | KNodes fn gn => exists idf idg, eref f = RN idf /\ find_node s idf = Some fn /\
                                    eref g = RN idg /\ find_node s idg = Some gn
  | KFail => False
  end.
Proof.
  intros s op f g phi psi B Df Dg.
  (* facts about the operands' functions, case by case *)
  assert (Fsame : eref f = eref g -> etag f = etag g -> forall c, bchoice c -> phi c = psi c).
  { intros Er Et. assert (f = g) by (apply edge_ext; assumption). subst g.
    apply (denc_unique s f phi psi Df Dg). }
  assert (Fopp : eref f = eref g -> etag f = negb (etag g) -> forall c, bchoice c -> phi c = negb (psi c)).
  { intros Er Et. assert (f = enot g) by (apply edge_ext; simpl; assumption). subst f.
    apply (denc_unique s (enot g) phi _ Df (denc_not s g psi Dg)). }
  assert (Ff : cnode s f = Some NVT -> forall c, bchoice c -> phi c = negb (etag f)).
  { intros V. destruct (cnode_NVT s f V) as [t Et]. apply (denc_term s f t phi Df Et). }
  assert (Fg : cnode s g = Some NVT -> forall c, bchoice c -> psi c = negb (etag g)).
  { intros V. destruct (cnode_NVT s g V) as [t Et]. apply (denc_term s g t psi Dg Et). }
  Local Ltac pwc phi psi :=
    let c := fresh "c" in let Hc := fresh "Hc" in
    intros c Hc; cbv beta;
    repeat match goal with
           | Hx : forall c, bchoice c -> _ = _ |- _ => generalize (Hx c Hc); clear Hx
           end;
    clear - c; destruct (phi c); destruct (psi c); simpl; congruence.
  Local Ltac kt s B phi psi :=
    match goal with
    | |- match kterm s ?b with _ => _ end =>
        let e := fresh "e" in let Ee := fresh "Ee" in let De := fresh "De" in
        destruct (cget_terminal_den s b B) as [e [Ee De]]; unfold kterm; rewrite Ee;
        apply (denc_ext s e _ _ De); pwc phi psi
    end.
  destruct (cnode_total s f (proj1 Df)) as [vf Vf]. destruct (cnode_total s g (proj1 Dg)) as [vg Vg].
  destruct op; unfold cterminal, cterminal_and, cterminal_xor;
    (destruct (ref_eqb (eref f) (eref g)) eqn:Er;
     [ apply ref_eqb_true in Er; specialize (Fsame Er); specialize (Fopp Er); clear Ff Fg;
       destruct (Bool.eqb (etag f) (etag g)) eqn:Et;
       [ apply bool_eqb_true in Et; specialize (Fsame Et); clear Fopp
       | apply bool_eqb_false in Et; specialize (Fopp Et); clear Fsame ]
     | clear Fsame Fopp; rewrite Vf, Vg; destruct vf as [fn|], vg as [gn|];
       [ destruct (cnode_NVI s f fn Vf) as [idf [Ef Efn]]; destruct (cnode_NVI s g gn Vg) as [idg [Eg Egn]];
         exists idf, idg; auto
       | specialize (Fg Vg); clear Ff; destruct (etag g) eqn:Tg
       | specialize (Ff Vf); clear Fg; destruct (etag f) eqn:Tf
       | specialize (Ff Vf); specialize (Fg Vg); destruct (etag f) eqn:Tf; destruct (etag g) eqn:Tg ] ]);
    cbv beta iota;
    try (kt s B phi psi; fail);
    try (apply (denc_ext s f phi _ Df); pwc phi psi; fail);
    try (apply (denc_ext s g psi _ Dg); pwc phi psi; fail);
    try (apply (denc_ext s (enot f) _ _ (denc_not s f phi Df)); pwc phi psi; fail);
    try (apply (denc_ext s (enot g) _ _ (denc_not s g psi Dg)); pwc phi psi; fail).
Qed.

(** ** Caches *)

Section CacheSec.
Variable lt : edge -> edge -> bool.
Variable C : Type.
Variable cget : C -> N -> list edge -> option edge.
Variable cadd : C -> N -> list edge -> edge -> C.

(** the only thing assumed about the cache: what it serves after an insertion
    is the inserted entry or something it served before *)
Definition lossyC : Prop :=
  forall c k a r k' a' r', cget (cadd c k a r) k' a' = Some r' ->
    (k' = k /\ a' = a /\ r' = r) \/ cget c k' a' = Some r'.

Hypothesis Hlossy : lossyC.

(** an entry is correct in table [s] *)
Definition centry_ok (s : snap) (code : N) (args : list edge) (r : edge) : Prop :=
  match args with
  | [f; g] => forall o, code = cop_code o ->
      exists phi psi, DenC s f phi /\ DenC s g psi /\
                      DenC s r (fun c => ceval o (phi c) (psi c))
  | [f; g; h] => code = ccode_ite ->
      exists phi psi theta, DenC s f phi /\ DenC s g psi /\ DenC s h theta /\
                            DenC s r (fun c => if phi c then psi c else theta c)
  | _ => True
  end.

Definition CacheOKC (s : snap) (c : C) : Prop :=
  forall code args r, cget c code args = Some r -> centry_ok s code args r.

Lemma centry_ok_extends : forall s s' code args r, BcOK s -> extends s s' ->
  centry_ok s code args r -> centry_ok s' code args r.
Proof.
  intros s s' code args r B X. unfold centry_ok.
  destruct args as [|f [|g [|h [|x rest]]]]; auto.
  - intros Hx o Hc. destruct (Hx o Hc) as [phi [psi [A [A' D]]]]. exists phi, psi.
    repeat split; eapply denc_extends; eauto.
  - intros Hx Hc. destruct (Hx Hc) as [phi [psi [theta [A [A' [A'' D]]]]]]. exists phi, psi, theta.
    repeat split; eapply denc_extends; eauto.
Qed.

Lemma ccacheok_extends : forall s s' c, BcOK s -> extends s s' -> CacheOKC s c -> CacheOKC s' c.
Proof. exact (gcacheok_extends edge BcOK C cget centry_ok centry_ok_extends). Qed.

Lemma ccacheok_add : forall s c code args r, CacheOKC s c -> centry_ok s code args r ->
  CacheOKC s (cadd c code args r).
Proof. exact (gcacheok_add edge C cget cadd Hlossy centry_ok). Qed.

Definition cresult_ok (s : snap) (c : C) (res : cres C) (Phi : (nat -> nat) -> bool) : Prop :=
  exists s' c' r, res = Some (s', c', r) /\
    BcOK s' /\ extends s s' /\ CacheOKC s' c' /\ DenC s' r Phi /\
    (* if the result function already has an edge, that edge is returned and
       the table is unchanged *)
    (forall r0, DenC s r0 Phi -> s' = s /\ r = r0).

Lemma cresult_ok_ext : forall s c res Phi Phi', cresult_ok s c res Phi ->
  (forall c0, bchoice c0 -> Phi c0 = Phi' c0) -> cresult_ok s c res Phi'.
Proof. exact (gresult_ok_ext edge BcOK DenC denc_ext C cget centry_ok). Qed.

Lemma cresult_ok_here : forall s c r Phi, BcOK s -> CacheOKC s c -> DenC s r Phi ->
  cresult_ok s c (Some (s, c, r)) Phi.
Proof. exact (gresult_ok_here edge BcOK DenC denc_canon C cget centry_ok). Qed.

Definition cshannon_step :=
  gshannon_step edge edge BcOK DenC (fun s e => rlevel s (eref e)) cmk_node (fun h => h)
    denc_ext denc_extends denc_level denc_cof_exists cnode_step cmk_node_stable
    C cget cadd Hlossy centry_ok centry_ok_extends.

(** [Ok(not_owned(r?))] *)
Lemma cresult_ok_not : forall s c res Phi, cresult_ok s c res Phi ->
  cresult_ok s c (onot C res) (fun c0 => negb (Phi c0)).
Proof.
  intros s c res Phi [s' [c' [r [E [B [X [O [D S]]]]]]]].
  exists s', c', (enot r). split; [rewrite E; reflexivity|].
  split; [exact B|]. split; [exact X|]. split; [exact O|]. split; [apply denc_not; exact D|].
  intros r0 D0.
  assert (D0' : DenC s (enot r0) Phi).
  { apply (denc_ext s (enot r0) _ _ (denc_not s r0 _ D0)). intros c0 _. apply negb_involutive. }
  destruct (S _ D0') as [Es Er]. split; [exact Es|]. rewrite Er. apply enot_invol.
Qed.

(** ** [not]: the tag flip *)
Theorem capply_not_ok : forall s c f phi, BcOK s -> CacheOKC s c -> DenC s f phi ->
  cresult_ok s c (capply_not C s c f) (fun c0 => negb (phi c0)).
Proof.
  intros s c f phi B O D. unfold capply_not. apply cresult_ok_here; auto. apply denc_not. exact D.
Qed.

(** ** [apply_bin] *)

Lemma ceval_comm : forall o x y, ceval o x y = ceval o y x.
Proof. intros [] [] []; reflexivity. Qed.

Lemma cop_code_inj : forall o o', cop_code o = cop_code o' -> o = o'.
Proof. intros [] [] E; simpl in E; try discriminate; reflexivity. Qed.

(** the step after the terminal cases, for any [rec] that is correct on
    operands one level further down *)
Lemma cbin_step_ok : forall op n (rec : snap -> C -> edge -> edge -> cres C),
  (forall s c f g phi psi, BcOK s -> CacheOKC s c -> DenC s f phi -> DenC s g psi ->
     nlevels s - Nat.min (rlevel s (eref f)) (rlevel s (eref g)) < n ->
     cresult_ok s c (rec s c f g) (fun c0 => ceval op (phi c0) (psi c0))) ->
  forall s c f idf fnd g idg gnd phi psi,
    BcOK s -> CacheOKC s c -> DenC s f phi -> DenC s g psi ->
    eref f = RN idf -> find_node s idf = Some fnd ->
    eref g = RN idg -> find_node s idg = Some gnd ->
    nlevels s - Nat.min (nlevel fnd) (nlevel gnd) < S n ->
    cresult_ok s c (cbin_step C cget cadd rec s c op f fnd g gnd)
               (fun c0 => ceval op (phi c0) (psi c0)).
Proof.
  intros op n rec IH s c f idf fnd g idg gnd phi psi B O Df Dg Erf Ef Erg Eg Hfuel.
  pose proof (bc_wf s B) as H.
  pose proof (wf_level s H idf fnd Ef) as Hlf. pose proof (wf_level s H idg gnd Eg) as Hlg.
  unfold cbin_step.
  destruct (cget c (cop_code op) [f; g]) as [h|] eqn:Ec.
  - (* cache hit *)
    destruct (O _ _ _ Ec op eq_refl) as [pa [pb [Da [Db Dh]]]].
    apply cresult_ok_here; auto. apply (denc_ext s h _ _ Dh). intros c0 Hc.
    rewrite (denc_unique s _ pa phi Da Df c0 Hc), (denc_unique s _ pb psi Db Dg c0 Hc). reflexivity.
  - rewrite (wf_stored s H idf fnd Ef), (wf_stored s H idg gnd Eg).
    set (lvl := Nat.min (nlevel fnd) (nlevel gnd)) in *. cbv zeta.
    assert (Hmf : lvl <= nlevel fnd) by apply Nat.le_min_l.
    assert (Hmg : lvl <= nlevel gnd) by apply Nat.le_min_r.
    assert (Hlvl : lvl < nlevels s) by apply (Nat.le_lt_trans _ _ _ Hmf Hlf).
    destruct (ccof2_ok s f idf fnd phi lvl B Df Erf Ef Hmf) as [ft [fe [Ecf [Dft [Dfe [Lft Lfe]]]]]].
    destruct (ccof2_ok s g idg gnd psi lvl B Dg Erg Eg Hmg) as [gt' [ge [Ecg [Dgt [Dge [Lgt Lge]]]]]].
    rewrite Ecf, Ecg.
    rewrite <- (rlevel_node s idf fnd Ef), <- Erf in Hmf. rewrite <- (rlevel_node s idg gnd Eg), <- Erg in Hmg.
    apply (cshannon_step s c lvl (fun c0 => ceval op (phi c0) (psi c0)) (cop_code op) [f; g] _
             (fun s1 c1 => rec s1 c1 fe ge)); [exact B | exact Hlvl | | | |].
    + intros x y Hx Hy Exy. f_equal.
      * apply (denc_indep_le s f phi lvl H Df Hmf); assumption.
      * apply (denc_indep_le s g psi lvl H Dg Hmg); assumption.
    + apply (IH s c ft gt' _ _ B O Dft Dgt). apply (fuel_below2 _ lvl _ _ _ Hfuel Hlvl Lft Lgt).
    + intros s1 c1 B1 X1 O1.
      apply (IH s1 c1 fe ge _ _ B1 O1 (denc_extends s s1 _ _ B X1 Dfe) (denc_extends s s1 _ _ B X1 Dge)).
      rewrite (ext_nlevels _ _ X1), (ext_rlevel _ _ _ X1 (proj1 Dfe)), (ext_rlevel _ _ _ X1 (proj1 Dge)).
      apply (fuel_below2 _ lvl _ _ _ Hfuel Hlvl Lfe Lge).
    + intros s3 r X03 Dres o Ho. apply cop_code_inj in Ho. subst o.
      exists phi, psi. split; [apply (denc_extends s s3 _ _ B X03 Df)|].
      split; [apply (denc_extends s s3 _ _ B X03 Dg) | exact Dres].
Qed.

Lemma capply_bin_S : forall n s c op f g,
  capply_bin lt C cget cadd (S n) s c op f g =
  match cterminal s op f g with
  | KFail => None
  | KDone h => Some (s, c, h)
  | KNodes fnode gnode =>
    if lt f g then cbin_step C cget cadd (fun s' c' f' g' => capply_bin lt C cget cadd n s' c' op f' g') s c op f fnode g gnode
    else cbin_step C cget cadd (fun s' c' f' g' => capply_bin lt C cget cadd n s' c' op f' g') s c op g gnode f fnode
  end.
Proof. reflexivity. Qed.

Theorem capply_bin_ok : forall op fuel s c f g phi psi,
  BcOK s -> CacheOKC s c -> DenC s f phi -> DenC s g psi ->
  nlevels s - Nat.min (rlevel s (eref f)) (rlevel s (eref g)) < fuel ->
  cresult_ok s c (capply_bin lt C cget cadd fuel s c op f g)
             (fun c0 => ceval op (phi c0) (psi c0)).
Proof.
  intros op. induction fuel as [|n IH]; intros s c f g phi psi B O Df Dg Hfuel; [lia|].
  rewrite capply_bin_S.
  pose proof (cterminal_sound s op f g phi psi B Df Dg) as T.
  destruct (cterminal s op f g) as [r|fn gn|]; [| |contradiction].
  - apply cresult_ok_here; auto.
  - destruct T as [idf [idg [Erf [Ef [Erg Eg]]]]].
    rewrite Erf, Erg, (rlevel_node s idf fn Ef), (rlevel_node s idg gn Eg) in Hfuel.
    destruct (lt f g).
    + apply (cbin_step_ok op n _ IH s c f idf fn g idg gn phi psi); auto.
    + apply (cresult_ok_ext s c _ (fun c0 => ceval op (psi c0) (phi c0))).
      * apply (cbin_step_ok op n _ IH s c g idg gn f idf fn psi phi); auto. lia.
      * intros c0 _. apply ceval_comm.
Qed.

(** ** The eight binary operators of the [BooleanFunction] interface *)

Lemma rlevel_enot : forall s e, rlevel s (eref (enot e)) = rlevel s (eref e).
Proof. reflexivity. Qed.

Theorem capply_op_ok : forall o fuel s c f g phi psi,
  BcOK s -> CacheOKC s c -> DenC s f phi -> DenC s g psi ->
  nlevels s - Nat.min (rlevel s (eref f)) (rlevel s (eref g)) < fuel ->
  cresult_ok s c (capply_op lt C cget cadd fuel s c o f g)
             (fun c0 => eval_bop o (phi c0) (psi c0)).
Proof.
  intros o fuel s c f g phi psi B O Df Dg Hfuel.
  pose proof (denc_not s f phi Df) as Dnf. pose proof (denc_not s g psi Dg) as Dng.
  Local Ltac tt phi psi := let c0 := fresh "c0" in intros c0 _; cbv beta; destruct (phi c0); destruct (psi c0); reflexivity.
  destruct o; unfold capply_op.
  - (* and *)
    apply (cresult_ok_ext s c _ _ _ (capply_bin_ok CAnd fuel s c f g phi psi B O Df Dg Hfuel)). tt phi psi.
  - (* or = not (and (not f) (not g)) *)
    apply (cresult_ok_ext s c _ _ _
             (cresult_ok_not s c _ _ (capply_bin_ok CAnd fuel s c (enot f) (enot g) _ _ B O Dnf Dng Hfuel))).
    tt phi psi.
  - (* xor *)
    apply (cresult_ok_ext s c _ _ _ (capply_bin_ok CXor fuel s c f g phi psi B O Df Dg Hfuel)). tt phi psi.
  - (* equiv = not xor *)
    apply (cresult_ok_ext s c _ _ _
             (cresult_ok_not s c _ _ (capply_bin_ok CXor fuel s c f g phi psi B O Df Dg Hfuel))).
    tt phi psi.
  - (* nand = not and *)
    apply (cresult_ok_ext s c _ _ _
             (cresult_ok_not s c _ _ (capply_bin_ok CAnd fuel s c f g phi psi B O Df Dg Hfuel))).
    tt phi psi.
  - (* nor = and (not f) (not g) *)
    apply (cresult_ok_ext s c _ _ _ (capply_bin_ok CAnd fuel s c (enot f) (enot g) _ _ B O Dnf Dng Hfuel)).
    tt phi psi.
  - (* imp = not (and f (not g)) *)
    apply (cresult_ok_ext s c _ _ _
             (cresult_ok_not s c _ _ (capply_bin_ok CAnd fuel s c f (enot g) _ _ B O Df Dng Hfuel))).
    tt phi psi.
  - (* imp_strict = and (not f) g *)
    apply (cresult_ok_ext s c _ _ _ (capply_bin_ok CAnd fuel s c (enot f) g _ _ B O Dnf Dg Hfuel)).
    tt phi psi.
Qed.

End CacheSec.

Arguments lossyC {C}.
Arguments CacheOKC {C}.
Arguments cresult_ok {C}.
