(** * C02 (plain BDD kind): what an apply operation does to the TABLE

    The correspondence run of checks/C02.py (driver ocaml/c02_main.ml) replays
    every operation of the implementation on the lifted snapshot taken BEFORE the
    operation and compares the model's post table with the implementation's:
    same result edge, same new nodes, no old node changed.  The theorems that
    give this comparison its meaning, for the algorithms of DD/Apply.v
    ([apply_not], [apply_bin] incl. [terminal_bin], [apply_ite], [mk_var]):

    - [apply_*_tight] (no hypothesis at all: any table, any cache content, any
      operand order, any fuel): the result table EXTENDS the given one (every
      stored node is kept unchanged, terminals / order / handles untouched) and
      every node it has in addition is REACHABLE FROM THE RESULT edge: an
      operation creates exactly the missing part of the result's diagram, no
      intermediate node that the result does not use ("no garbage");
    - [apply_*_deterministic]: on a well-formed table, with any two lossy cache
      implementations holding any correct contents and any two operand orders,
      the two runs return the SAME table and the SAME edge (corollary of the
      C20 development: DD/ConfigCache.v with the node store [fresh_id] and the
      sequential schedule);
    - [apply_*_dm]: the instance the driver runs: the direct-mapped cache of
      DD/Cache.v with any hash function, any bucket count, initially empty;
    - [apply_*_existing]: if the result function already has an edge, that edge
      is returned and the table is unchanged (so "same edge" is required by
      the driver whenever the result existed before the operation). *)

From Coq Require Import List NArith PArith Bool Arith Lia FMapPositive.
From OxiVerif Require Import DD.Table DD.TableProofs DD.Canon DD.Sem DD.Build DD.BuildProofs
  DD.Cache DD.CacheProofs DD.Apply DD.ApplyProofs DD.ConfigApply DD.ConfigProofs DD.ConfigCache.
Import ListNotations.

(** ** Reachability from one reference *)

Inductive nreach (s : snap) : ref -> positive -> Prop :=
| nr_here : forall id, nreach s (RN id) id
| nr_child : forall j nd e id, find_node s j = Some nd -> In e (nchildren nd) ->
    nreach s (eref e) id -> nreach s (RN j) id.

Lemma nreach_ext : forall s s' r id, extends s s' -> nreach s r id -> nreach s' r id.
Proof.
  intros s s' r id X R. induction R as [id|j nd e id E Hin R IH].
  - apply nr_here.
  - apply (nr_child s' j nd e id); [apply (ext_nodes _ _ X); exact E | exact Hin | exact IH].
Qed.

(** the same relation in the vocabulary of C05 ([reachable] from a root list) *)
Lemma nreach_reachable : forall s r id, nreach s r id -> reachable s [r] (RN id).
Proof.
  intros s r id R. induction R as [id|j nd e id E Hin R IH].
  - apply reach_root. left. reflexivity.
  - assert (G : forall x, reachable s [eref e] x -> reachable s [RN j] x).
    { intros x Rx. induction Rx as [x Hx|i nd' e' Rx IHx E' Hin'].
      - destruct Hx as [<-|[]]. apply (reach_child s [RN j] j nd e); [apply reach_root; left; reflexivity | exact E | exact Hin].
      - apply (reach_child s [RN j] i nd' e'); [exact IHx | exact E' | exact Hin']. }
    apply G. exact IH.
Qed.

(** every node of [s'] is a node of [s] or belongs to the diagram of [r] *)
Definition tight (s s' : snap) (r : ref) : Prop :=
  forall id nd, find_node s' id = Some nd -> find_node s id = Some nd \/ nreach s' r id.

Lemma tight_refl : forall s r, tight s s r.
Proof. intros s r id nd E. left. exact E. Qed.

(** ** [reduce] + [get_or_insert] *)

Lemma get_or_insert_extends : forall s lvl ch s' h, get_or_insert s lvl ch = (s', h) -> extends s s'.
Proof.
  intros s lvl ch s' h. unfold get_or_insert. destruct (find_dup s lvl ch) as [i|]; intros Hm; inversion Hm; subst.
  - apply extends_refl.
  - constructor; try reflexivity. intros id nd E. unfold find_node, set_nodes. simpl.
    rewrite PositiveMap.gso; [exact E|]. intros ->. unfold find_node in E.
    pose proof (fresh_id_free s) as F. unfold find_node in F. congruence.
Qed.

Lemma mk_node_extends : forall s lvl ch s' h, mk_node s lvl ch = (s', h) -> extends s s'.
Proof.
  intros s lvl ch s' h. unfold mk_node. destruct ch as [|c0 rest].
  - intros Hm. inversion Hm. apply extends_refl.
  - destruct (all_equal (c0 :: rest)).
    + intros Hm. inversion Hm. apply extends_refl.
    + apply get_or_insert_extends.
Qed.

(** the node step of the three algorithms: the only node that can be new is the
    result, and the result's diagram contains the diagrams of both children *)
Lemma mk_node_tight : forall s lvl t e s' h, mk_node s lvl [E t; E e] = (s', h) ->
  extends s s' /\
  (forall id nd, find_node s' id = Some nd -> find_node s id = Some nd \/ eref h = RN id) /\
  (forall id, nreach s' t id \/ nreach s' e id -> nreach s' (eref h) id).
Proof.
  intros s lvl t e s' h Hm. split; [apply (mk_node_extends _ _ _ _ _ Hm)|].
  unfold mk_node in Hm. destruct (all_equal [E t; E e]) eqn:Ea.
  - inversion Hm; subst s' h. split; [intros id nd F; left; exact F|].
    simpl in Ea. rewrite andb_true_r in Ea. apply edge_eqb_eq in Ea. inversion Ea; subst e.
    intros id [R|R]; exact R.
  - unfold get_or_insert in Hm. destruct (find_dup s lvl [E t; E e]) as [i|] eqn:Ed.
    + inversion Hm; subst s' h. split; [intros id nd F; left; exact F|].
      destruct (find_dup_some s lvl _ i Ed) as [nd [En [_ Ech]]].
      intros id [R|R]; simpl.
      * apply (nr_child s i nd (E t) id En); [rewrite Ech; left; reflexivity | exact R].
      * apply (nr_child s i nd (E e) id En); [rewrite Ech; right; left; reflexivity | exact R].
    + inversion Hm; subst s' h. clear Hm.
      set (s' := set_nodes s (PositiveMap.add (fresh_id s) (mkNode lvl [E t; E e] lvl 0%N) (s_nodes s))).
      assert (Enew : find_node s' (fresh_id s) = Some (mkNode lvl [E t; E e] lvl 0%N))
        by (unfold find_node, s', set_nodes; simpl; apply PositiveMap.gss).
      split.
      * intros id nd F. destruct (Pos.eq_dec id (fresh_id s)) as [->|Hne]; [right; reflexivity|].
        left. unfold find_node, s', set_nodes in F. simpl in F. rewrite PositiveMap.gso in F by exact Hne. exact F.
      * intros id [R|R]; simpl.
        -- apply (nr_child s' _ _ (E t) id Enew); [left; reflexivity | exact R].
        -- apply (nr_child s' _ _ (E e) id Enew); [right; left; reflexivity | exact R].
Qed.

(** the common tail: two sub-results, then the node step *)
Lemma join_tight : forall s s1 s2 s3 t e lvl h,
  extends s s1 -> tight s s1 t -> extends s1 s2 -> tight s1 s2 e ->
  mk_node s2 lvl [E t; E e] = (s3, h) ->
  extends s s3 /\ tight s s3 (eref h).
Proof.
  intros s s1 s2 s3 t e lvl h X1 T1 X2 T2 Hm.
  destruct (mk_node_tight s2 lvl t e s3 h Hm) as [X3 [N3 R3]].
  split; [eapply extends_trans; [|exact X3]; eapply extends_trans; eauto|].
  intros id nd F. destruct (N3 id nd F) as [F2|Eh].
  - destruct (T2 id nd F2) as [F1|Re].
    + destruct (T1 id nd F1) as [F0|Rt]; [left; exact F0|].
      right. apply R3. left. apply (nreach_ext s1 s3); [eapply extends_trans; eauto | exact Rt].
    + right. apply R3. right. apply (nreach_ext s2 s3 _ _ X3 Re).
  - right. rewrite Eh. apply nr_here.
Qed.

Section Any.
Variable gt : ref -> ref -> bool.
Variable C : Type.
Variable cget : C -> N -> list ref -> option ref.
Variable cadd : C -> N -> list ref -> ref -> C.

(** ** [apply_not] *)
Theorem apply_not_tight : forall fuel s c f s' c' r,
  apply_not C cget cadd fuel s c f = Some (s', c', r) -> extends s s' /\ tight s s' r.
Proof.
  induction fuel as [|n IH]; intros s c f s' c' r Hr; [discriminate|].
  rewrite apply_not_S in Hr. destruct f as [t|id].
  - destruct (view s (RT t)) as [[|b]|]; try discriminate.
    destruct (term_of s (negb b)); [|discriminate]. inversion Hr; subst.
    split; [apply extends_refl | apply tight_refl].
  - destruct (find_node s id) as [nd|]; [|discriminate].
    destruct (cget c code_not [RN id]) as [h|].
    + inversion Hr; subst. split; [apply extends_refl | apply tight_refl].
    + destruct (nchildren nd) as [|ft [|fe [|x rest]]]; try discriminate.
      destruct (apply_not C cget cadd n s c (eref ft)) as [[[s1 c1] t]|] eqn:E1; [|discriminate].
      destruct (apply_not C cget cadd n s1 c1 (eref fe)) as [[[s2 c2] e]|] eqn:E2; [|discriminate].
      destruct (mk_node s2 (nstored nd) [E t; E e]) as [s3 h] eqn:Em.
      inversion Hr; subst s' c' r.
      destruct (IH _ _ _ _ _ _ E1) as [X1 T1]. destruct (IH _ _ _ _ _ _ E2) as [X2 T2].
      apply (join_tight s s1 s2 s3 t e _ h X1 T1 X2 T2 Em).
Qed.

(** ** [apply_bin] (all cases of [terminal_bin], cache hit, expansion) *)
Theorem apply_bin_tight : forall op fuel s c f g s' c' r,
  apply_bin gt C cget cadd fuel s c op f g = Some (s', c', r) -> extends s s' /\ tight s s' r.
Proof.
  intros op. induction fuel as [|n IH]; intros s c f g s' c' r Hr; [discriminate|].
  rewrite apply_bin_S in Hr. destruct (terminal_bin gt s op f g) as [h|x|o a b|]; [| | |discriminate Hr].
  - inversion Hr; subst. split; [apply extends_refl | apply tight_refl].
  - apply (apply_not_tight _ _ _ _ _ _ _ Hr).
  - destruct (cget c (op_code o) [a; b]) as [h|].
    + inversion Hr; subst. split; [apply extends_refl | apply tight_refl].
    + destruct (inner s f) as [fnode|]; [|discriminate]. destruct (inner s g) as [gnode|]; [|discriminate].
      cbv zeta in Hr.
      destruct (cof2 f fnode (Nat.min (nstored fnode) (nstored gnode))) as [[ft fe]|]; [|discriminate].
      destruct (cof2 g gnode (Nat.min (nstored fnode) (nstored gnode))) as [[gt' ge]|]; [|discriminate].
      destruct (apply_bin gt C cget cadd n s c op ft gt') as [[[s1 c1] t]|] eqn:E1; [|discriminate].
      destruct (apply_bin gt C cget cadd n s1 c1 op fe ge) as [[[s2 c2] e]|] eqn:E2; [|discriminate].
      destruct (mk_node s2 (Nat.min (nstored fnode) (nstored gnode)) [E t; E e]) as [s3 h] eqn:Em.
      inversion Hr; subst s' c' r.
      destruct (IH _ _ _ _ _ _ _ E1) as [X1 T1]. destruct (IH _ _ _ _ _ _ _ E2) as [X2 T2].
      apply (join_tight s s1 s2 s3 t e _ h X1 T1 X2 T2 Em).
Qed.

(** ** [apply_ite] (all short-cuts, cache hit, expansion) *)
Theorem apply_ite_tight : forall fuel s c f g h s' c' r,
  apply_ite gt C cget cadd fuel s c f g h = Some (s', c', r) -> extends s s' /\ tight s s' r.
Proof.
  induction fuel as [|n IH]; intros s c f g h s' c' r Hr; [discriminate|].
  rewrite apply_ite_S in Hr.
  assert (Here : forall x, Some (s, c, x) = Some (s', c', r) -> extends s s' /\ tight s s' r).
  { intros x Hx. inversion Hx; subst. split; [apply extends_refl | apply tight_refl]. }
  destruct (ref_eqb g h); [apply (Here _ Hr)|].
  destruct (ref_eqb f g); [apply (apply_bin_tight _ _ _ _ _ _ _ _ _ Hr)|].
  destruct (ref_eqb f h); [apply (apply_bin_tight _ _ _ _ _ _ _ _ _ Hr)|].
  destruct (view s f) as [[|bf]|]; [| |discriminate].
  2: { destruct bf; apply (Here _ Hr). }
  destruct (view s g) as [[|[|]]|]; [| | |discriminate]; (destruct (view s h) as [[|bh]|]; [| |discriminate]).
  - destruct (cget c code_ite [f; g; h]) as [x|]; [apply (Here _ Hr)|].
    destruct (inner s f) as [fnode|]; [|discriminate]. destruct (inner s g) as [gnode|]; [|discriminate].
    destruct (inner s h) as [hnode|]; [|discriminate]. cbv zeta in Hr.
    set (lvl := Nat.min (Nat.min (nstored fnode) (nstored gnode)) (nstored hnode)) in *.
    destruct (cof2 f fnode lvl) as [[ft fe]|]; [|discriminate].
    destruct (cof2 g gnode lvl) as [[gt' ge]|]; [|discriminate].
    destruct (cof2 h hnode lvl) as [[ht he]|]; [|discriminate].
    destruct (apply_ite gt C cget cadd n s c ft gt' ht) as [[[s1 c1] t]|] eqn:E1; [|discriminate].
    destruct (apply_ite gt C cget cadd n s1 c1 fe ge he) as [[[s2 c2] e]|] eqn:E2; [|discriminate].
    destruct (mk_node s2 lvl [E t; E e]) as [s3 x] eqn:Em.
    inversion Hr; subst s' c' r.
    destruct (IH _ _ _ _ _ _ _ _ E1) as [X1 T1]. destruct (IH _ _ _ _ _ _ _ _ E2) as [X2 T2].
    apply (join_tight s s1 s2 s3 t e _ x X1 T1 X2 T2 Em).
  - destruct bh; apply (apply_bin_tight _ _ _ _ _ _ _ _ _ Hr).
  - apply (apply_bin_tight _ _ _ _ _ _ _ _ _ Hr).
  - apply (Here _ Hr).
  - apply (apply_bin_tight _ _ _ _ _ _ _ _ _ Hr).
  - apply (apply_not_tight _ _ _ _ _ _ _ Hr).
Qed.

End Any.

(** ** [var_edge] / [not_var_edge] *)
Theorem mk_var_tight : forall s v neg s' r, mk_var s v neg = Some (s', r) ->
  extends s s' /\ forall id nd, find_node s' id = Some nd -> find_node s id = Some nd \/ r = RN id.
Proof.
  intros s v neg s' r. unfold mk_var.
  destruct (nth_error (s_v2l s) v) as [lvl|]; [|discriminate].
  destruct (term_of s true) as [t1|]; [|discriminate]. destruct (term_of s false) as [t0|]; [|discriminate].
  set (ch := if neg then [E (RT t0); E (RT t1)] else [E (RT t1); E (RT t0)]).
  destruct (get_or_insert s lvl ch) as [s1 e] eqn:Eg. intros Hr. inversion Hr; subst s' r.
  split; [apply (get_or_insert_extends _ _ _ _ _ Eg)|].
  unfold get_or_insert in Eg. destruct (find_dup s lvl ch) as [i|]; inversion Eg; subst s1 e.
  - intros id nd F. left. exact F.
  - intros id nd F. destruct (Pos.eq_dec id (fresh_id s)) as [->|Hne]; [right; reflexivity|].
    left. unfold find_node, set_nodes in F. simpl in F. rewrite PositiveMap.gso in F by exact Hne. exact F.
Qed.

(** ** The result does not depend on the cache or on the operand order *)

Section Det.
Variables gt1 gt2 : ref -> ref -> bool.
Variables C1 C2 : Type.
Variable cget1 : C1 -> N -> list ref -> option ref.
Variable cadd1 : C1 -> N -> list ref -> ref -> C1.
Variable cget2 : C2 -> N -> list ref -> option ref.
Variable cadd2 : C2 -> N -> list ref -> ref -> C2.
Hypothesis L1 : lossy cget1 cadd1.
Hypothesis L2 : lossy cget2 cadd2.

Lemma same_out_some : forall (r1 : option (snap * C1 * ref)) (r2 : option (snap * C2 * ref)),
  same_out C1 C2 r1 r2 ->
  exists s' c1' c2' r, r1 = Some (s', c1', r) /\ r2 = Some (s', c2', r).
Proof.
  intros [[[s1 c1'] r1]|] [[[s2 c2'] r2]|] H; try contradiction.
  destruct H as [-> ->]. exists s2, c1', c2', r2. auto.
Qed.

Theorem apply_not_deterministic : forall fuel s c1 c2 f,
  BddOK s -> CacheOK cget1 s c1 -> CacheOK cget2 s c2 -> ref_ok s f -> FUEL s <= fuel ->
  exists s' c1' c2' r,
    apply_not C1 cget1 cadd1 fuel s c1 f = Some (s', c1', r) /\
    apply_not C2 cget2 cadd2 fuel s c2 f = Some (s', c2', r).
Proof.
  intros fuel s c1 c2 f B O1 O2 Hf F. apply same_out_some.
  pose proof (apply_not_g_cache_exact fresh_id fresh_id_alloc_ok C1 C2 cget1 cadd1 cget2 cadd2 L1 L2
                fuel SSeq s c1 c2 f B O1 O2 Hf F) as H.
  rewrite !apply_not_g_seq in H. exact H.
Qed.

Theorem apply_bin_deterministic : forall op fuel s c1 c2 f g,
  BddOK s -> CacheOK cget1 s c1 -> CacheOK cget2 s c2 -> ref_ok s f -> ref_ok s g -> FUEL s <= fuel ->
  exists s' c1' c2' r,
    apply_bin gt1 C1 cget1 cadd1 fuel s c1 op f g = Some (s', c1', r) /\
    apply_bin gt2 C2 cget2 cadd2 fuel s c2 op f g = Some (s', c2', r).
Proof.
  intros op fuel s c1 c2 f g B O1 O2 Hf Hg F. apply same_out_some.
  pose proof (apply_bin_g_cache_exact fresh_id fresh_id_alloc_ok gt1 gt2 C1 C2 cget1 cadd1 cget2 cadd2 L1 L2
                op fuel SSeq s c1 c2 f g B O1 O2 Hf Hg F) as H.
  rewrite !apply_bin_g_seq in H. exact H.
Qed.

Theorem apply_ite_deterministic : forall fuel s c1 c2 f g h,
  BddOK s -> CacheOK cget1 s c1 -> CacheOK cget2 s c2 -> ref_ok s f -> ref_ok s g -> ref_ok s h ->
  FUEL s <= fuel ->
  exists s' c1' c2' r,
    apply_ite gt1 C1 cget1 cadd1 fuel s c1 f g h = Some (s', c1', r) /\
    apply_ite gt2 C2 cget2 cadd2 fuel s c2 f g h = Some (s', c2', r).
Proof.
  intros fuel s c1 c2 f g h B O1 O2 Hf Hg Hh F. apply same_out_some.
  pose proof (apply_ite_g_cache_exact fresh_id fresh_id_alloc_ok gt1 gt2 C1 C2 cget1 cadd1 cget2 cadd2 L1 L2
                fuel SSeq s c1 c2 f g h B O1 O2 Hf Hg Hh F) as H.
  rewrite !apply_ite_g_seq in H. exact H.
Qed.

End Det.

(** ** If the result function already has an edge: that edge, and nothing is created *)

Section Existing.
Variable gt : ref -> ref -> bool.
Variable C : Type.
Variable cget : C -> N -> list ref -> option ref.
Variable cadd : C -> N -> list ref -> ref -> C.
Hypothesis L : lossy cget cadd.

Lemma result_ok_existing : forall s c res Phi r0,
  result_ok C cget s c res Phi -> Den s r0 Phi -> exists c', res = Some (s, c', r0).
Proof.
  intros s c res Phi r0 [s' [c' [r [E [_ [_ [_ [_ S]]]]]]]] D0.
  destruct (S r0 D0) as [-> ->]. exists c'. exact E.
Qed.

Theorem apply_not_existing : forall fuel s c f phi r0,
  BddOK s -> CacheOK cget s c -> Den s f phi -> FUEL s <= fuel ->
  Den s r0 (fun c0 => negb (phi c0)) ->
  exists c', apply_not C cget cadd fuel s c f = Some (s, c', r0).
Proof.
  intros fuel s c f phi r0 B O D F. unfold FUEL in F. pose proof (rlevel_le s (bo_wf s B) f).
  apply (result_ok_existing s c _ _ r0). apply (apply_not_ok C cget cadd L fuel s c f phi B O D). lia.
Qed.

Theorem apply_bin_existing : forall op fuel s c f g phi psi r0,
  BddOK s -> CacheOK cget s c -> Den s f phi -> Den s g psi -> FUEL s <= fuel ->
  Den s r0 (fun c0 => eval_bop op (phi c0) (psi c0)) ->
  exists c', apply_bin gt C cget cadd fuel s c op f g = Some (s, c', r0).
Proof.
  intros op fuel s c f g phi psi r0 B O Df Dg F. unfold FUEL in F.
  apply (result_ok_existing s c _ _ r0). apply (apply_bin_ok gt C cget cadd L op fuel s c f g phi psi B O Df Dg). lia.
Qed.

Theorem apply_ite_existing : forall fuel s c f g h phi psi theta r0,
  BddOK s -> CacheOK cget s c -> Den s f phi -> Den s g psi -> Den s h theta -> FUEL s <= fuel ->
  Den s r0 (fun c0 => if phi c0 then psi c0 else theta c0) ->
  exists c', apply_ite gt C cget cadd fuel s c f g h = Some (s, c', r0).
Proof.
  intros fuel s c f g h phi psi theta r0 B O Df Dg Dh F. unfold FUEL in F.
  apply (result_ok_existing s c _ _ r0).
  apply (apply_ite_ok gt C cget cadd L fuel s c f g h phi psi theta B O Df Dg Dh). lia.
Qed.

End Existing.

(** ** The instance of the correspondence run: direct-mapped cache (any hash
    function, any number of buckets, any entry capacity), initially empty, any
    operand order.  One statement per algorithm: defined; well-formed extension;
    new nodes = new part of the result's diagram; pointwise correct; and the
    very same table and edge as the run WITHOUT cache under any other order. *)

Lemma run_package : forall (C1 C2 : Type) (res : option (snap * C1 * ref)) (res2 : option (snap * C2 * ref))
    s (CO : snap -> C1 -> Prop) (V : snap -> ref -> Prop),
  (exists s' c' r, res = Some (s', c', r) /\ BddOK s' /\ extends s s' /\ CO s' c' /\ ref_ok s' r /\ V s' r) ->
  (forall s' c' r, res = Some (s', c', r) -> extends s s' /\ tight s s' r) ->
  (exists s' c1' c2' r, res = Some (s', c1', r) /\ res2 = Some (s', c2', r)) ->
  exists s' c' r, res = Some (s', c', r) /\ BddOK s' /\ extends s s' /\ tight s s' r /\ ref_ok s' r /\
    V s' r /\ exists c2', res2 = Some (s', c2', r).
Proof.
  intros C1 C2 res res2 s CO V [s' [c' [r [E [B' [X [_ [Hr Hv]]]]]]]] T [s2 [c1' [c2' [r2 [E1 E2]]]]].
  exists s', c', r. split; [exact E|]. split; [exact B'|]. split; [exact X|].
  split; [apply (T s' c' r E)|]. split; [exact Hr|]. split; [exact Hv|].
  rewrite E in E1. inversion E1. subst s2 r2. exists c2'. exact E2.
Qed.

Section Dm.
Variable hash : dm_key -> N.
Variable gt : ref -> ref -> bool.
Let dget := dmr_get hash.
Let dadd := dmr_add hash.

Theorem apply_not_dm : forall nb cap s f, BddOK s -> ref_ok s f ->
  exists s' c' r,
    apply_not dm_cache dget dadd (FUEL s) s (dm_init nb cap) f = Some (s', c', r) /\
    BddOK s' /\ extends s s' /\ tight s s' r /\ ref_ok s' r /\
    (forall c0, bchoice c0 -> exists x, bvalue s f c0 x /\ bvalue s' r c0 (negb x)) /\
    exists c2', apply_not unit nc_get nc_add (FUEL s) s tt f = Some (s', c2', r).
Proof.
  intros nb cap s f B Hf.
  apply (run_package _ _ _ _ s _ _
    (apply_not_sound dm_cache dget dadd (dmr_lossy hash) (FUEL s) s (dm_init nb cap) f B
       (dm_cacheok_init hash s nb cap) Hf (le_n _))
    (apply_not_tight dm_cache dget dadd (FUEL s) s (dm_init nb cap) f)
    (apply_not_deterministic dm_cache unit dget dadd nc_get nc_add (dmr_lossy hash) nc_lossy
       (FUEL s) s (dm_init nb cap) tt f B (dm_cacheok_init hash s nb cap) (nc_ok s tt) Hf (le_n _))).
Qed.

Theorem apply_bin_dm : forall gt2 nb cap op s f g, BddOK s -> ref_ok s f -> ref_ok s g ->
  exists s' c' r,
    apply_bin gt dm_cache dget dadd (FUEL s) s (dm_init nb cap) op f g = Some (s', c', r) /\
    BddOK s' /\ extends s s' /\ tight s s' r /\ ref_ok s' r /\
    (forall c0, bchoice c0 -> exists x y,
        bvalue s f c0 x /\ bvalue s g c0 y /\ bvalue s' r c0 (eval_bop op x y)) /\
    exists c2', apply_bin gt2 unit nc_get nc_add (FUEL s) s tt op f g = Some (s', c2', r).
Proof.
  intros gt2 nb cap op s f g B Hf Hg.
  apply (run_package _ _ _ _ s _ _
    (apply_bin_sound gt dm_cache dget dadd (dmr_lossy hash) op (FUEL s) s (dm_init nb cap) f g B
       (dm_cacheok_init hash s nb cap) Hf Hg (le_n _))
    (apply_bin_tight gt dm_cache dget dadd op (FUEL s) s (dm_init nb cap) f g)
    (apply_bin_deterministic gt gt2 dm_cache unit dget dadd nc_get nc_add (dmr_lossy hash) nc_lossy
       op (FUEL s) s (dm_init nb cap) tt f g B (dm_cacheok_init hash s nb cap) (nc_ok s tt) Hf Hg (le_n _))).
Qed.

Theorem apply_ite_dm : forall gt2 nb cap s f g h, BddOK s -> ref_ok s f -> ref_ok s g -> ref_ok s h ->
  exists s' c' r,
    apply_ite gt dm_cache dget dadd (FUEL s) s (dm_init nb cap) f g h = Some (s', c', r) /\
    BddOK s' /\ extends s s' /\ tight s s' r /\ ref_ok s' r /\
    (forall c0, bchoice c0 -> exists x y z,
        bvalue s f c0 x /\ bvalue s g c0 y /\ bvalue s h c0 z /\ bvalue s' r c0 (if x then y else z)) /\
    exists c2', apply_ite gt2 unit nc_get nc_add (FUEL s) s tt f g h = Some (s', c2', r).
Proof.
  intros gt2 nb cap s f g h B Hf Hg Hh.
  apply (run_package _ _ _ _ s _ _
    (apply_ite_sound gt dm_cache dget dadd (dmr_lossy hash) (FUEL s) s (dm_init nb cap) f g h B
       (dm_cacheok_init hash s nb cap) Hf Hg Hh (le_n _))
    (apply_ite_tight gt dm_cache dget dadd (FUEL s) s (dm_init nb cap) f g h)
    (apply_ite_deterministic gt gt2 dm_cache unit dget dadd nc_get nc_add (dmr_lossy hash) nc_lossy
       (FUEL s) s (dm_init nb cap) tt f g h B (dm_cacheok_init hash s nb cap) (nc_ok s tt) Hf Hg Hh (le_n _))).
Qed.

End Dm.

(** ** A concrete run: hypotheses satisfiable, a node is created, [tight] is not vacuous *)

Definition edge_hash (k : dm_key) : N := (k_op k * 7 + N.of_nat (length (k_eops k)))%N.
Definition edge_gt (a b : ref) : bool := match a, b with RN x, RN y => Pos.ltb y x | _, _ => false end.

(** [ex_snap] (DD/TableProofs.v): node 1 = "level 1", node 2 = "not level 1",
    node 3 = "level 0 <-> level 1".  (l0 <-> l1) and l1 = l0 and l1: exactly one
    new node (id 4, the result); (l0 <-> l1) xor l1 = not l0: one new node;
    l1 nand l1 = not l1 exists already: nothing is created and node 2 is returned *)
Example edge_example :
  BddOK ex_snap /\
  (match apply_bin edge_gt dm_cache (dmr_get edge_hash) (dmr_add edge_hash) (FUEL ex_snap) ex_snap
           (dm_init 4 8) OAnd (RN 3) (RN 1) with
   | Some (s', _, r) =>
     r = RN 4 /\ find_node ex_snap 4 = None /\
     find_node s' 4 = Some (mkNode 0 [E (RN 1); E (RT 0)] 0 0) /\
     length (PositiveMap.elements (s_nodes s')) = 4
   | None => False
   end) /\
  (match apply_bin edge_gt dm_cache (dmr_get edge_hash) (dmr_add edge_hash) (FUEL ex_snap) ex_snap
           (dm_init 4 8) ONand (RN 1) (RN 1) with
   | Some (s', _, r) => r = RN 2 /\ s' = ex_snap
   | None => False
   end).
Proof.
  split; [apply bdd_ok_b_spec; vm_compute; reflexivity|]. split.
  - vm_compute. repeat split; reflexivity.
  - vm_compute. split; reflexivity.
Qed.
