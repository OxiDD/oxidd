(** * Constants, variables, evaluation and cofactors of the BDD kind

    - [choice_of], [bfun_of]: from assignments (variable |-> bool) to choices
      (level |-> child index) and the Boolean function (DD/Sem.v [bfun]) a
      reference denotes under the current variable order;
    - [eval_walk_sem], [eval_edge_sem]: the walk of [eval_edge] computes the
      node-by-node interpretation [semk];
    - [cofactors_shannon], [cofactors_cof]: the children of the root are the
      two Shannon cofactors w.r.t. the top-most variable ([Sem.cof]);
    - [mk_var_sem], [mk_const_sem]. *)

From Coq Require Import List NArith PArith Bool Arith Lia FMapPositive.
From OxiVerif Require Import DD.Table DD.TableProofs DD.Canon DD.Sem DD.Build DD.BuildProofs DD.Apply DD.ApplyProofs.
Import ListNotations.

(** the choice function of an assignment under the table's variable order
    (child 0 = then = the level's variable is true) *)
Definition choice_of (s : snap) (a : asg) : nat -> nat :=
  fun l => match nth_error (s_l2v s) l with
           | Some v => if a v then 0 else 1
           | None => 0
           end.

Lemma choice_of_bchoice : forall s a, bchoice (choice_of s a).
Proof.
  intros s a l. unfold choice_of. destruct (nth_error (s_l2v s) l) as [v|]; [destruct (a v)|]; lia.
Qed.

(** the Boolean function of a reference *)
Definition bfun_of (s : snap) (r : ref) : bfun :=
  fun a => match semk s (FUEL s) r (choice_of s a) with Some 1%N => true | _ => false end.

Lemma bfun_of_den : forall s r phi, Den s r phi -> forall a, bfun_of s r a = phi (choice_of s a).
Proof.
  intros s r phi [_ D] a. unfold bfun_of, FUEL. rewrite (D _ (choice_of_bchoice s a)).
  destruct (phi (choice_of s a)); reflexivity.
Qed.

(** ** Evaluation *)

Theorem eval_walk_sem : forall s, WF s -> forall fuel r ch,
  eval_walk fuel s r ch =
  option_map (fun v => N.eqb v 1) (semk s fuel r (fun l => if ch l then 1 else 0)).
Proof.
  intros s H. induction fuel as [|n IH]; intros r ch.
  - destruct r as [t|id]; simpl; [|reflexivity].
    rewrite semk_T. destruct (term_val s t); reflexivity.
  - destruct r as [t|id]; simpl eval_walk.
    + rewrite semk_T. destruct (term_val s t); reflexivity.
    + rewrite semk_S. destruct (find_node s id) as [nd|] eqn:En; [|reflexivity].
      rewrite (wf_stored s H id nd En).
      destruct (ch (nlevel nd));
        (destruct (nth_error (nchildren nd) _) as [e|]; [apply IH | reflexivity]).
Qed.

(** [eval_edge] on an existing reference: always a result, and it is the value
    [semk] gives under the choices built from the argument list *)
Theorem eval_edge_sem : forall s r args, BddOK s -> ref_ok s r ->
  exists x, eval_edge s r args = Some x /\
    bvalue s r (fun l => if choices_of s args (fun _ => false) l then 1 else 0) x.
Proof.
  intros s r args B Hok. unfold eval_edge. rewrite (eval_walk_sem s (bo_wf s B)).
  destruct (den_exists s r B Hok) as [phi D].
  set (c := fun l => if choices_of s args (fun _ => false) l then 1 else 0).
  assert (Hc : bchoice c) by (intros l; unfold c; destruct (choices_of s args _ l); lia).
  exists (phi c). unfold bvalue, FUEL. rewrite (proj2 D c Hc). split; [|reflexivity].
  destruct (phi c); reflexivity.
Qed.

(** what [choices_of] computes when the argument list is consistent with an
    assignment [a]: every listed variable's level gets [negb (a var)] *)
Lemma choices_of_consistent : forall s (a : asg), WF s -> forall args acc l,
  (forall v b, In (v, b) args -> b = a v /\ v < length (s_v2l s)) ->
  choices_of s args acc l =
  if existsb (fun p : nat * bool => match nth_error (s_v2l s) (fst p) with
                                    | Some lv => Nat.eqb l lv | None => false end) args
  then match nth_error (s_l2v s) l with Some v => negb (a v) | None => acc l end
  else acc l.
Proof.
  intros s a H. induction args as [|[v b] rest IH]; intros acc l Hall; [reflexivity|].
  simpl. destruct (Hall v b (or_introl eq_refl)) as [-> Hv].
  destruct (wf_perm_v2l s H v Hv) as [lv [E1 E2]]. rewrite E1.
  rewrite IH by (intros v' b' Hin; apply Hall; right; exact Hin).
  destruct (Nat.eqb_spec l lv) as [->|Hne]; simpl.
  - rewrite E2. destruct (existsb _ rest); reflexivity.
  - reflexivity.
Qed.

Lemma choices_of_assignment : forall s (a : asg) args, WF s ->
  (forall v b, In (v, b) args -> b = a v /\ v < nlevels s) ->
  (forall v, v < nlevels s -> In v (map fst args)) ->
  forall l, (if choices_of s args (fun _ => false) l then 1 else 0) = choice_of s a l.
Proof.
  intros s a args H Hcons Hall l. unfold choice_of.
  assert (Hlen : length (s_v2l s) = nlevels s) by (apply (wf_perm_len s H)).
  rewrite (choices_of_consistent s a H args _ l)
    by (intros v b Hin; destruct (Hcons v b Hin); split; [assumption | lia]).
  destruct (nth_error (s_l2v s) l) as [v|] eqn:El.
  - assert (Hl : l < length (s_l2v s)) by (apply nth_error_Some; congruence).
    destruct (wf_perm_l2v s H l Hl) as [v' [E1 E2]]. rewrite El in E1. inversion E1; subst v'.
    assert (Hv : v < nlevels s) by (rewrite <- Hlen; apply nth_error_Some; congruence).
    assert (Hex : existsb (fun p : nat * bool => match nth_error (s_v2l s) (fst p) with
                              | Some lv => Nat.eqb l lv | None => false end) args = true).
    { apply existsb_exists. specialize (Hall v Hv). apply in_map_iff in Hall.
      destruct Hall as [[v0 b0] [Ev Hin]]. simpl in Ev. subst v0.
      exists (v, b0). split; [exact Hin|]. simpl. rewrite E2. apply Nat.eqb_refl. }
    rewrite Hex. destruct (a v); reflexivity.
  - destruct (existsb _ args); reflexivity.
Qed.

Theorem eval_edge_assignment : forall s r (a : asg) args, BddOK s -> ref_ok s r ->
  (forall v b, In (v, b) args -> b = a v /\ v < nlevels s) ->
  (forall v, v < nlevels s -> In v (map fst args)) ->
  eval_edge s r args = Some (bfun_of s r a).
Proof.
  intros s r a args B Hok Hcons Hall. pose proof (bo_wf s B) as H.
  destruct (eval_edge_sem s r args B Hok) as [x [E V]]. rewrite E. f_equal.
  destruct (den_exists s r B Hok) as [phi D]. rewrite (bfun_of_den s r phi D).
  set (c := fun l => if choices_of s args (fun _ => false) l then 1 else 0) in *.
  assert (Hc : bchoice c) by (intros l; unfold c; destruct (choices_of s args _ l); lia).
  apply (bvalue_fun s r c); [exact V|]. unfold bvalue, FUEL.
  rewrite (proj2 D c Hc). do 2 f_equal.
  apply (den_indep s r phi H D c (choice_of s a) Hc (choice_of_bchoice s a)).
  intros l _. apply (choices_of_assignment s a args H Hcons Hall).
Qed.

(** ** Cofactors *)

Theorem cofactors_shannon : forall s r t e, BddOK s -> ref_ok s r ->
  cofactors s r = Some (t, e) ->
  exists id nd, r = RN id /\ find_node s id = Some nd /\ rlevel s r = nlevel nd /\
    ref_ok s t /\ ref_ok s e /\
    forall c, bchoice c ->
      semk s (FUEL s) t c = semk s (FUEL s) r (cupd c (nlevel nd) 0) /\
      semk s (FUEL s) e c = semk s (FUEL s) r (cupd c (nlevel nd) 1).
Proof.
  intros s r t e B Hok Hc. pose proof (bo_wf s B) as H.
  destruct r as [x|id]; [discriminate|]. simpl in Hc.
  destruct (find_node s id) as [nd|] eqn:En; [|discriminate].
  destruct (bdd_children s id nd B En) as [a [b Ech]]. rewrite Ech in Hc. inversion Hc; subst t e.
  assert (Ha : nth_error (nchildren nd) 0 = Some a) by (rewrite Ech; reflexivity).
  assert (Hb : nth_error (nchildren nd) 1 = Some b) by (rewrite Ech; reflexivity).
  exists id, nd. split; [reflexivity|]. split; [exact En|].
  split; [apply (rlevel_node s id nd En)|].
  split; [apply (child_nth s H id nd 0 a En Ha)|]. split; [apply (child_nth s H id nd 1 b En Hb)|].
  intros c _. split.
  - apply (child_sem s H id nd 0 a c En Ha).
  - apply (child_sem s H id nd 1 b c En Hb).
Qed.

(** setting variable [v] in the assignment = setting its level in the choice *)
Lemma choice_of_upd : forall s (a : asg) v lvl b, WF s ->
  nth_error (s_l2v s) lvl = Some v ->
  forall l, choice_of s (Sem.upd a v b) l = cupd (choice_of s a) lvl (if b then 0 else 1) l.
Proof.
  intros s a v lvl b H El l. unfold choice_of, Sem.upd, cupd.
  assert (Hlvl : lvl < length (s_l2v s)) by (apply nth_error_Some; congruence).
  destruct (nth_error (s_l2v s) l) as [v'|] eqn:E.
  - assert (Hl : l < length (s_l2v s)) by (apply nth_error_Some; congruence).
    destruct (wf_perm_l2v s H l Hl) as [x [E1 E2]]. rewrite E in E1. inversion E1; subst x.
    destruct (wf_perm_l2v s H lvl Hlvl) as [y [F1 F2]]. rewrite El in F1. inversion F1; subst y.
    destruct (Nat.eqb_spec v' v) as [->|Hne]; destruct (Nat.eqb_spec l lvl) as [->|Hnl];
      try reflexivity.
    + rewrite E2 in F2. inversion F2. contradiction.
    + rewrite E in El. inversion El. contradiction.
  - destruct (Nat.eqb_spec l lvl) as [->|Hnl]; [congruence | reflexivity].
Qed.

(** C02: the two results of [cofactors] are the Shannon cofactors of the
    handle's function w.r.t. the variable at its root level *)
Theorem cofactors_cof : forall s r t e, BddOK s -> ref_ok s r ->
  cofactors s r = Some (t, e) ->
  exists v, nth_error (s_l2v s) (rlevel s r) = Some v /\
    forall a, bfun_of s t a = cof (bfun_of s r) v true a /\
              bfun_of s e a = cof (bfun_of s r) v false a.
Proof.
  intros s r t e B Hok Hc. pose proof (bo_wf s B) as H.
  destruct (cofactors_shannon s r t e B Hok Hc) as [id [nd [-> [En [Hl [Ot [Oe Hs]]]]]]].
  pose proof (wf_level s H id nd En) as Hlv.
  destruct (nth_error (s_l2v s) (nlevel nd)) as [v|] eqn:Ev;
    [|apply nth_error_None in Ev; unfold nlevels in Hlv; lia].
  exists v. rewrite Hl. split; [exact Ev|]. intros a.
  destruct (Hs (choice_of s a) (choice_of_bchoice s a)) as [S0 S1].
  unfold cof, bfun_of. split.
  - rewrite S0. rewrite (semk_ext s H _ (RN id) _ _ (fun l _ => choice_of_upd s a v (nlevel nd) true H Ev l)).
    reflexivity.
  - rewrite S1. rewrite (semk_ext s H _ (RN id) _ _ (fun l _ => choice_of_upd s a v (nlevel nd) false H Ev l)).
    reflexivity.
Qed.

(** ** Constants and variables *)

Theorem mk_const_sem : forall s b, BddOK s ->
  exists r, mk_const s b = Some r /\ Den s r (fun _ => b).
Proof.
  intros s b B. unfold mk_const. destruct (term_of_total s b B) as [t E]. rewrite E.
  exists (RT t). split; [reflexivity | apply den_const; assumption].
Qed.

Theorem mk_var_sem : forall s v neg, BddOK s -> v < nlevels s ->
  exists lvl s' r, nth_error (s_v2l s) v = Some lvl /\ mk_var s v neg = Some (s', r) /\
    BddOK s' /\ extends s s' /\
    Den s' r (fun c => xorb neg (Nat.eqb (c lvl) 0)).
Proof.
  intros s v neg B Hv. pose proof (bo_wf s B) as H.
  assert (Hv' : v < length (s_v2l s)) by (rewrite (wf_perm_len s H); exact Hv).
  destruct (wf_perm_v2l s H v Hv') as [lvl [E1 E2]].
  assert (Hlvl : lvl < nlevels s) by (unfold nlevels; apply nth_error_Some; congruence).
  destruct (term_of_total s true B) as [t1 T1]. destruct (term_of_total s false B) as [t0 T0].
  pose proof (term_of_spec s true t1 H T1) as V1. pose proof (term_of_spec s false t0 H T0) as V0.
  simpl in V1, V0.
  assert (Hne : t1 <> t0) by (intros ->; rewrite V1 in V0; discriminate).
  unfold mk_var. rewrite E1, T1, T0.
  set (ch := if neg then [E (RT t0); E (RT t1)] else [E (RT t1); E (RT t0)]).
  assert (Hae : all_equal ch = false).
  { unfold ch. destruct neg; simpl; unfold edge_eqb; simpl; rewrite andb_true_r, andb_false_iff; left;
      apply N.eqb_neq; congruence. }
  assert (Hch : children_ok s lvl ch).
  { split; [rewrite (bo_kind s B); unfold ch; destruct neg; reflexivity|].
    intros e He.
    assert (Hx : e = E (RT t1) \/ e = E (RT t0))
      by (unfold ch in He; destruct neg; simpl in He; intuition).
    destruct Hx as [->| ->]; simpl; (split; [eexists; eassumption | split; [exact Hlvl | reflexivity]]). }
  destruct (get_or_insert s lvl ch) as [s' e] eqn:Eg.
  destruct (get_or_insert_wf s lvl ch s' e H (bdd_kary s B) Hlvl Hch Hae Eg) as [W [X [O [_ [_ Sh]]]]].
  exists lvl, s', (eref e). split; [reflexivity|]. split; [reflexivity|].
  split; [apply (bddok_extends s s' B X W)|]. split; [exact X|].
  split; [exact O|]. intros c Hc. pose proof (Hc lvl) as Hc2.
  destruct (c lvl) as [|[|k]] eqn:Ec; [| |lia].
  - destruct neg; unfold ch in Sh.
    + rewrite (Sh c 0 (E (RT t0)) Ec eq_refl). simpl. rewrite semk_T. exact V0.
    + rewrite (Sh c 0 (E (RT t1)) Ec eq_refl). simpl. rewrite semk_T. exact V1.
  - destruct neg; unfold ch in Sh.
    + rewrite (Sh c 1 (E (RT t1)) Ec eq_refl). simpl. rewrite semk_T. exact V1.
    + rewrite (Sh c 1 (E (RT t0)) Ec eq_refl). simpl. rewrite semk_T. exact V0.
Qed.

(** in terms of assignments: the (negated) variable *)
Theorem mk_var_bfun : forall s v neg, BddOK s -> v < nlevels s ->
  exists s' r, mk_var s v neg = Some (s', r) /\ BddOK s' /\ extends s s' /\ ref_ok s' r /\
    forall a, bfun_of s' r a = xorb neg (var_s v a).
Proof.
  intros s v neg B Hv.
  destruct (mk_var_sem s v neg B Hv) as [lvl [s' [r [E1 [Em [B' [X D]]]]]]].
  exists s', r. split; [exact Em|]. split; [exact B'|]. split; [exact X|]. split; [apply (proj1 D)|].
  intros a. rewrite (bfun_of_den s' r _ D). unfold var_s, choice_of.
  pose proof (bo_wf s B) as H.
  assert (Hv' : v < length (s_v2l s)) by (rewrite (wf_perm_len s H); exact Hv).
  destruct (wf_perm_v2l s H v Hv') as [lvl' [F1 F2]]. rewrite E1 in F1. inversion F1; subst lvl'.
  rewrite (ext_l2v _ _ X), F2. destruct (a v); reflexivity.
Qed.

(** the binary operators in terms of Boolean functions of assignments *)
Theorem apply_bin_bfun : forall gt C cget cadd, lossy cget cadd ->
  forall op s (c : C) f g,
  BddOK s -> CacheOK cget s c -> ref_ok s f -> ref_ok s g ->
  exists s' c' r, apply_bin gt C cget cadd (S (nlevels s)) s c op f g = Some (s', c', r) /\
    BddOK s' /\ extends s s' /\
    forall a, bfun_of s' r a = lift2 op (bfun_of s f) (bfun_of s g) a.
Proof.
  intros gt C cget cadd L op s c f g B O Hf Hg.
  destruct (den_exists s f B Hf) as [phi Df]. destruct (den_exists s g B Hg) as [psi Dg].
  destruct (apply_bin_ok gt C cget cadd L op (S (nlevels s)) s c f g phi psi B O Df Dg ltac:(lia))
    as [s' [c' [r [E [B' [X [_ [D' _]]]]]]]].
  exists s', c', r. split; [exact E|]. split; [exact B'|]. split; [exact X|].
  intros a. unfold lift2.
  rewrite (bfun_of_den s' r _ D'), (bfun_of_den s f phi Df), (bfun_of_den s g psi Dg).
  unfold choice_of. rewrite (ext_l2v _ _ X). reflexivity.
Qed.
