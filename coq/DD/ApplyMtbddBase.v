(** * Foundations for the MTBDD apply proofs (DD/ApplyMtbdd.v)

    - [code]/[decode] are mutually inverse;
    - [MtOK]: the invariant (well-formed MTBDD table whose terminal values are
      values of the Rust type [I64]), decided by [mt_ok_b];
    - [mext s s']: [s'] has every node and every terminal of [s] (the table
      may have gained nodes AND terminals), every reference of [s] means in
      [s'] what it meant in [s];
    - [DenM s r phi]: reference [r] denotes the function [phi] from choices
      (assignments by level) to [i64v];
    - [get_terminal_ok]: hash-consing of terminal values;
    - independence of levels, Shannon cofactors, the node step ([mk_node]),
      canonicity inside one table.

    [MtOK_g], [mext_g]: the invariants are those of DD/MtGBase.v at the
    terminal type [MtI64.i64_alg] ([DenM], [indepM], [cofM] unfold to the same
    there), and the lemmas are the instances of the generic ones. *)

From Coq Require Import List NArith ZArith PArith Bool Arith Lia FMapPositive.
From OxiVerif Require Import DD.Table DD.TableProofs DD.Canon DD.Sem DD.Build DD.BuildProofs
  DD.Apply DD.ApplyProofs DD.ApplyMtbdd Num.I64 Num.I64Proofs.
From OxiVerif Require Export DD.ApplyMtbddCode.
From OxiVerif Require DD.MtG DD.MtGBase.
From OxiVerif Require Import DD.MtI64 DD.ApplyMtbddGen.
Import ListNotations.

#[local] Existing Instance i64_alg.
#[local] Existing Instance i64_laws.

Notation cupd := TableProofs.upd.

Lemma code_inj : forall a b, code a = code b -> a = b.
Proof. intros a b E. rewrite <- (decode_code a), <- (decode_code b), E. reflexivity. Qed.

(** ** The invariant

    [MtOK], [mext], [mfun], [DenM], [indepM], [cofM] here, and [Cube], [ovr],
    [tb_post], [mentry_ok], [MCacheOK], [mresult_ok], [rin_post], [mvalue],
    [mfun_of], [lits_hold], [force_asg] in the files that follow, are stated for
    [I64] in their own right and not as the definitions of DD/MtG*.v at
    [i64_alg]: the statements of Props/C10.v and of the manager-level
    developments (Mgr/HistoryM*.v, Mgr/OomMtbdd*.v) are written over them.
    Records and inductive predicates are related to the generic ones by a
    lemma ([MtOK_g], [mext_g], ...); plain definitions unfold to the same. *)

Record MtOK (s : snap) : Prop := mkMtOK {
  mo_wf : WF s;
  mo_kind : s_kind s = KMtbdd;
  mo_vals : forall t c, term_val s t = Some c -> wf (decode c)
}.

Lemma MtOK_g : forall s, MtOK s <-> MtGBase.MtOK s.
Proof.
  intros s. split; intros [H K V]; constructor; auto; intros t c E; apply wfb_true, (V t c E).
Qed.

Theorem mt_ok_b_spec : forall s, mt_ok_b s = true <-> MtOK s.
Proof. intros s. rewrite MtOK_g. exact (MtGBase.mt_ok_b_spec s). Qed.

Lemma mt_children : forall s id nd, MtOK s -> find_node s id = Some nd ->
  exists a b, nchildren nd = [a; b].
Proof. intros s id nd B. exact (MtGBase.mt_children s id nd (proj1 (MtOK_g s) B)). Qed.

(** ** Table extension with new nodes and new terminals *)

Record mext (s s' : snap) : Prop := mkMext {
  mx_kind : s_kind s' = s_kind s;
  mx_terms : forall t c, term_val s t = Some c -> term_val s' t = Some c;
  mx_v2l : s_v2l s' = s_v2l s;
  mx_l2v : s_l2v s' = s_l2v s;
  mx_handles : s_handles s' = s_handles s;
  mx_nodes : forall id nd, find_node s id = Some nd -> find_node s' id = Some nd
}.

Lemma mext_g : forall s s', mext s s' <-> MtGBase.mext s s'.
Proof. intros s s'. split; intros []; constructor; assumption. Qed.

(** what a theorem of DD/MtG*.v concludes, as the invariants of this development *)
Create HintDb mtg discriminated.
#[export] Hint Resolve <- MtOK_g mext_g : mtg.

Lemma mext_refl : forall s, mext s s.
Proof. intros s. constructor; auto. Qed.

Lemma mext_trans : forall s1 s2 s3, mext s1 s2 -> mext s2 s3 -> mext s1 s3.
Proof.
  intros s1 s2 s3 A B. apply mext_g.
  exact (MtGBase.mext_trans s1 s2 s3 (proj1 (mext_g s1 s2) A) (proj1 (mext_g s2 s3) B)).
Qed.

Lemma mext_of_extends : forall s s', extends s s' -> mext s s'.
Proof. intros s s' X. apply mext_g. exact (MtGBase.mext_of_extends s s' X). Qed.

Lemma mx_nlevels : forall s s', mext s s' -> nlevels s' = nlevels s.
Proof. intros s s' X. unfold nlevels. rewrite (mx_l2v _ _ X). reflexivity. Qed.

Lemma mx_ref_ok : forall s s' r, mext s s' -> ref_ok s r -> ref_ok s' r.
Proof. intros s s' r X. exact (MtGBase.mx_ref_ok s s' r (proj1 (mext_g s s') X)). Qed.

Lemma mx_rlevel : forall s s' r, mext s s' -> ref_ok s r -> rlevel s' r = rlevel s r.
Proof. intros s s' r X. exact (MtGBase.mx_rlevel s s' r (proj1 (mext_g s s') X)). Qed.

(** every reference of [s] means in [s'] what it meant in [s], whatever the fuel *)
Lemma semk_mext : forall s s', WF s -> mext s s' ->
  forall f r c, ref_ok s r -> semk s' f r c = semk s f r c.
Proof. intros s s' H X. exact (MtGBase.semk_mext s s' H (proj1 (mext_g s s') X)). Qed.

(** ** Denotations *)

Definition mfun := (nat -> nat) -> i64v.

Definition DenM (s : snap) (r : ref) (phi : mfun) : Prop :=
  ref_ok s r /\
  forall c, bchoice c -> semk s (S (nlevels s)) r c = Some (code (phi c)).

Lemma denm_ext : forall s r phi phi', DenM s r phi ->
  (forall c, bchoice c -> phi c = phi' c) -> DenM s r phi'.
Proof. exact MtGBase.denm_ext. Qed.

Lemma denm_unique : forall s r phi phi', DenM s r phi -> DenM s r phi' ->
  forall c, bchoice c -> phi c = phi' c.
Proof. exact MtGBase.denm_unique. Qed.

(** the values of a denoted function are values of the Rust type *)
Lemma denm_wf : forall s r phi, MtOK s -> DenM s r phi -> forall c, bchoice c -> wf (phi c).
Proof.
  intros s r phi B D c Hc. apply wfb_true. exact (MtGBase.denm_wf s r phi (proj1 (MtOK_g s) B) D c Hc).
Qed.

Lemma denm_exists : forall s r, MtOK s -> ref_ok s r -> exists phi, DenM s r phi.
Proof. intros s r B. exact (MtGBase.denm_exists s r (proj1 (MtOK_g s) B)). Qed.

Lemma denm_mext : forall s s' r phi, MtOK s -> mext s s' -> DenM s r phi -> DenM s' r phi.
Proof.
  intros s s' r phi B X. exact (MtGBase.denm_mext s s' r phi (proj1 (MtOK_g s) B) (proj1 (mext_g s s') X)).
Qed.

Lemma denm_term : forall s t v, term_val s t = Some (code v) -> DenM s (RT t) (fun _ => v).
Proof. intros s t v E. split; [exists (code v); exact E|]. intros c _. rewrite semk_T. exact E. Qed.

(** ** [mt_view] *)

Lemma mt_view_total : forall s r, ref_ok s r -> exists v, mt_view s r = Some v.
Proof. intros s [t|id] [x E]; simpl; rewrite E; eauto. Qed.

Lemma mt_view_MI : forall s r nd, mt_view s r = Some (MI nd) ->
  exists id, r = RN id /\ find_node s id = Some nd.
Proof. intros s r nd V. exact (MtGBase.mt_view_MI s r nd (mt_view_some_g s r _ V)). Qed.

(** ** Independence of the levels above a reference *)

Definition indepM (phi : mfun) (L : nat) : Prop :=
  forall c c', bchoice c -> bchoice c' -> (forall l, L <= l -> c l = c' l) -> phi c = phi c'.

Definition cofM (phi : mfun) (lvl i : nat) : mfun := fun c => phi (cupd c lvl i).

Lemma denm_indep : forall s r phi, WF s -> DenM s r phi -> indepM phi (rlevel s r).
Proof. exact MtGBase.denm_indep. Qed.

(** a reference whose function ignores all levels below [L] sits at level [L]
    or deeper (a consequence of canonicity) *)
Lemma denm_level : forall s r phi L, MtOK s -> DenM s r phi -> L <= nlevels s ->
  indepM phi L -> L <= rlevel s r.
Proof. intros s r phi L B. exact (MtGBase.denm_level s r phi L (proj1 (MtOK_g s) B)). Qed.

(** ** Shannon cofactors of a reference *)

Lemma denm_child : forall s id nd i e phi, MtOK s -> DenM s (RN id) phi ->
  find_node s id = Some nd -> nth_error (nchildren nd) i = Some e ->
  DenM s (eref e) (cofM phi (nlevel nd) i).
Proof. intros s id nd i e phi B. exact (MtGBase.denm_child s id nd i e phi (proj1 (MtOK_g s) B)). Qed.

(** what [cof2] returns for a node at or below the split level *)
Lemma cof2_okM : forall s id nd phi lvl, MtOK s -> DenM s (RN id) phi ->
  find_node s id = Some nd -> lvl <= nlevel nd ->
  exists ft fe, cof2 (RN id) nd lvl = Some (ft, fe) /\
    DenM s ft (cofM phi lvl 0) /\ DenM s fe (cofM phi lvl 1) /\
    lvl < rlevel s ft /\ lvl < rlevel s fe.
Proof. intros s id nd phi lvl B. exact (MtGBase.cof2_okM s id nd phi lvl (proj1 (MtOK_g s) B)). Qed.

(** the same for [mt_cof] (inner node or terminal) *)
Lemma mt_cof_ok : forall s r v phi lvl, MtOK s -> DenM s r phi -> mt_view s r = Some v ->
  lvl <= rlevel s r -> lvl < nlevels s ->
  exists ft fe, mt_cof r v lvl = Some (ft, fe) /\
    DenM s ft (cofM phi lvl 0) /\ DenM s fe (cofM phi lvl 1) /\
    lvl < rlevel s ft /\ lvl < rlevel s fe.
Proof.
  intros s r v phi lvl B D V. rewrite <- mt_cof_g.
  exact (MtGBase.mt_cof_ok s r _ phi lvl (proj1 (MtOK_g s) B) D (mt_view_some_g s r v V)).
Qed.

(** ** Canonicity inside one table *)

Lemma denm_canon : forall s r1 r2 phi, MtOK s -> DenM s r1 phi -> DenM s r2 phi -> r1 = r2.
Proof. intros s r1 r2 phi B. exact (MtGBase.denm_canon s r1 r2 phi (proj1 (MtOK_g s) B)). Qed.

(** ** [get_terminal]: hash-consing of terminal values *)

Lemma rassoc_N_none : forall l v, rassoc_N l v = None -> ~ In v (map snd l).
Proof. exact MtGBase.rassoc_N_none. Qed.

Theorem get_terminal_ok : forall s v s' r, MtOK s -> wf v -> get_terminal s v = (s', r) ->
  MtOK s' /\ mext s s' /\ DenM s' r (fun _ => v) /\
  (forall r0, DenM s r0 (fun _ => v) -> s' = s /\ r = r0).
Proof.
  intros s v s' r B Hv E.
  destruct (MtGBase.get_terminal_ok (TA := i64_alg) s v s' r (proj1 (MtOK_g s) B) (proj2 (wfb_true v) Hv) E) as (B' & X & D).
  auto with mtg.
Qed.

(** [get_terminal] never fails to deliver a value that is already there *)
Lemma get_terminal_existing : forall s v t, WF s -> term_val s t = Some (code v) ->
  get_terminal s v = (s, RT t).
Proof. exact MtGBase.get_terminal_existing. Qed.
