(** * The coding of [I64] terminal values as numbers (DD/ApplyMtbdd.v):
      [code] and [decode] are mutually inverse *)

From Coq Require Import NArith ZArith PArith Lia.
From OxiVerif Require Import Num.I64 DD.ApplyMtbdd.

Lemma zdecode_zcode : forall z, zdecode (zcode z) = z.
Proof.
  intros [|p|p]; simpl; try reflexivity.
  destruct p; simpl; try reflexivity. rewrite Pos.succ_pred_double. reflexivity.
Qed.

Lemma zcode_zdecode : forall n, zcode (zdecode n) = n.
Proof.
  intros [|[p|p|]]; simpl; try reflexivity. rewrite Pos.pred_double_succ. reflexivity.
Qed.

Lemma decode_ge3 : forall n, (3 <= n)%N -> decode n = INum (zdecode (n - 3)).
Proof. intros [|[[p|p|]|[p|p|]|]] Hn; try reflexivity; lia. Qed.

Theorem decode_code : forall v, decode (code v) = v.
Proof.
  intros [| |z|]; try reflexivity. unfold code.
  rewrite decode_ge3 by lia. replace (3 + zcode z - 3)%N with (zcode z) by lia.
  rewrite zdecode_zcode. reflexivity.
Qed.

Theorem code_decode : forall n, code (decode n) = n.
Proof.
  intros n. destruct (N.ltb_spec n 3) as [Hlt|Hge].
  - destruct n as [|[[p|p|]|[p|p|]|]]; try reflexivity; lia.
  - rewrite decode_ge3 by exact Hge. unfold code. rewrite zcode_zdecode. lia.
Qed.
