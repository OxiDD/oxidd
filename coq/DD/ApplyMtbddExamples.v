(** * The hypotheses of the C10 function-level theorems are satisfiable, the
      model runs, and two short-cuts that are NOT laws are refuted at the
      diagram level

    - [ex0]: the empty MTBDD manager with two variables is [MtOK]; the table
      built from it by the model (f = 3*x0 + x1) is [MtOK] again;
    - [vm_compute] runs of add/sub/mul/min/max/ite/restrict/eval on it;
    - the witnesses of the two defects that were fixed in /repo: [0 - f] is
      not [f] (the former Sub arm [(Terminal(zero), _) => g]) and a result of
      [max] is not a correct cache entry under the key of [min] (the former
      Max arms built [Binary(MTBDDOp::Min, ..)]). *)

From Coq Require Import List NArith ZArith PArith Bool Arith Lia FMapPositive.
From OxiVerif Require Import DD.Table DD.TableProofs DD.Sem DD.Build DD.BuildProofs
  DD.Apply DD.ApplyProofs DD.ApplyMtbdd DD.ApplyMtbddBase DD.ApplyMtbddProofs
  DD.ApplyMtbddIte DD.ApplyMtbddRestrict DD.ApplyMtbddTop Num.I64 Num.I64Proofs.
Import ListNotations.

(** an operand order (by node id), standing for the address order of the code *)
Definition mgt_id (a b : ref) : bool :=
  match a, b with
  | RN x, RN y => Pos.ltb y x
  | RN _, RT _ => true
  | RT x, RT y => N.ltb y x
  | RT _, RN _ => false
  end.

(** a fresh manager with two variables: no node, no terminal *)
Definition ex0 : snap := mkSnap KMtbdd (PositiveMap.empty node) [] [0; 1] [0; 1] [].

Example ex0_ok : MtOK ex0.
Proof. apply mt_ok_b_spec. vm_compute. reflexivity. Qed.

Example ex0_cache_ok : MCacheOK ac_get ex0 [].
Proof. apply mac_empty_ok. Qed.

Definition bin (s : snap) (c : acache) (op : mop) (f g : ref) :=
  mt_apply_bin mgt_id acache ac_get ac_add (S (nlevels s)) s c op f g.

(** x0, x1, f = 3 * x0 + x1, built by the model *)
Definition ex_build : option (snap * acache * (ref * ref * ref)) :=
  match mt_var ex0 0 with
  | Some (s1, x0) =>
    match mt_var s1 1 with
    | Some (s2, x1) =>
      let '(s3, three) := mt_const s2 (INum 3) in
      match bin s3 [] MMul three x0 with
      | Some (s4, c4, m) =>
        match bin s4 c4 MAdd m x1 with
        | Some (s5, c5, f) => Some (s5, c5, (x0, x1, f))
        | None => None
        end
      | None => None
      end
    | None => None
    end
  | None => None
  end.

Definition ex1 : snap := match ex_build with Some (s, _, _) => s | None => ex0 end.
Definition ex_x0 : ref := match ex_build with Some (_, _, (x, _, _)) => x | None => RT 0 end.
Definition ex_x1 : ref := match ex_build with Some (_, _, (_, x, _)) => x | None => RT 0 end.
Definition ex_f : ref := match ex_build with Some (_, _, (_, _, x)) => x | None => RT 0 end.

Example ex_build_runs : ex_build <> None /\ ex_x0 = RN 2 /\ ex_x1 = RN 3 /\ ex_f = RN 6.
Proof. vm_compute. repeat split; try reflexivity. discriminate. Qed.

(** the table the model built satisfies the invariant (a non-trivial state
    for the hypotheses of every theorem) *)
Example ex1_ok : MtOK ex1.
Proof. apply mt_ok_b_spec. vm_compute. reflexivity. Qed.

(** value table of a reference by [mt_eval]: assignments (x0, x1) = 00, 10, 01, 11 *)
Definition vt (s : snap) (r : ref) : list (option i64v) :=
  map (fun p : bool * bool => mt_eval s r [(0, fst p); (1, snd p)])
      [(false, false); (true, false); (false, true); (true, true)].

Example ex_f_table : vt ex1 ex_f = [Some (INum 0); Some (INum 3); Some (INum 1); Some (INum 4)].
Proof. vm_compute. reflexivity. Qed.

Definition run_vt (res : option (snap * acache * ref)) : list (option i64v) :=
  match res with Some (s, _, r) => vt s r | None => [] end.

(** 0 - f = -f (not f: the witness of the fixed Sub short-cut), f - 0 = f *)
Example ex_sub_zero :
  (let '(s, z) := mt_const ex1 (INum 0) in run_vt (bin s [] MSub z ex_f))
  = [Some (INum 0); Some (INum (-3)); Some (INum (-1)); Some (INum (-4))] /\
  (let '(s, z) := mt_const ex1 (INum 0) in
   match bin s [] MSub ex_f z with Some (_, _, r) => r = ex_f | None => False end).
Proof. vm_compute. split; reflexivity. Qed.

(** min and max of 3*x0 and x1, back to back with a shared cache: different
    functions (the witness of the fixed Max arms) *)
Example ex_min_max :
  match (let '(s0, three) := mt_const ex1 (INum 3) in bin s0 [] MMul three ex_x0) with
  | Some (s, c, m) =>
    match bin s c MMin m ex_x1 with
    | Some (s', c', r) =>
      vt s' r = [Some (INum 0); Some (INum 0); Some (INum 0); Some (INum 1)] /\
      run_vt (bin s' c' MMax m ex_x1) = [Some (INum 0); Some (INum 3); Some (INum 1); Some (INum 3)]
    | None => False
    end
  | None => False
  end.
Proof. vm_compute. split; reflexivity. Qed.

(** saturation and undefined forms pointwise: f * MAX, (f * MAX) - (f * MAX), f / x1 *)
Example ex_saturation :
  (let '(s, k) := mt_const ex1 (INum i64_MAX) in
   match bin s [] MMul ex_f k with
   | Some (s', c', p) =>
     vt s' p = [Some (INum 0); Some IPlusInf; Some (INum i64_MAX); Some IPlusInf] /\
     run_vt (bin s' c' MSub p p) = [Some (INum 0); Some INaN; Some (INum 0); Some INaN]
   | None => False
   end) /\
  run_vt (bin ex1 [] MDiv ex_f ex_x1) = [Some INaN; Some IPlusInf; Some (INum 1); Some (INum 4)].
Proof. vm_compute. repeat split; reflexivity. Qed.

(** ite(x0, f, x1) and restrict(f, x0 := 1), restrict(f, x0 := 0 /\ x1 := 1) *)
Example ex_ite_restrict :
  run_vt (mt_apply_ite acache ac_get ac_add 3 ex1 [] ex_x0 ex_f ex_x1)
  = [Some (INum 0); Some (INum 3); Some (INum 1); Some (INum 4)] /\
  cube_lits 3 ex1 ex_x0 = Some [(0, true)] /\
  run_vt (mt_restrict acache ac_get ac_add 3 ex1 [] ex_f ex_x0)
  = [Some (INum 3); Some (INum 3); Some (INum 4); Some (INum 4)] /\
  (let '(s, one) := mt_const ex1 (INum 1) in
   match bin s [] MSub one ex_x0 with
   | Some (s1, c1, nx0) =>
     match bin s1 c1 MMul nx0 ex_x1 with
     | Some (s2, c2, cube) =>
       cube_lits 3 s2 cube = Some [(0, false); (1, true)] /\
       run_vt (mt_restrict acache ac_get ac_add 3 s2 c2 ex_f cube)
       = [Some (INum 1); Some (INum 1); Some (INum 1); Some (INum 1)]
     | None => False
     end
   | None => False
   end).
Proof. vm_compute. repeat split; reflexivity. Qed.

(** the same operation with no cache at all, and repeated on the result
    table: the same reference, nothing new *)
Example ex_rerun :
  match bin ex1 [] MAdd ex_f ex_x0 with
  | Some (s1, _, r1) =>
    match mt_apply_bin (fun _ _ => false) unit nc_get nc_add 3 s1 tt MAdd ex_f ex_x0 with
    | Some (s2, _, r2) =>
      r2 = r1 /\ PositiveMap.elements (s_nodes s2) = PositiveMap.elements (s_nodes s1)
      /\ s_terms s2 = s_terms s1
    | None => False
    end
  | None => False
  end.
Proof. vm_compute. repeat split; reflexivity. Qed.

(** ** Short-cuts that are not laws *)

(** returning [g] for [0 - g] (the arm [(Terminal(t), _) if t.is_zero() => g]
    that the Sub case of [terminal_bin] had) does not denote the pointwise
    difference: with that arm [mt_tb_sound] is false *)
Theorem sub_zero_shortcut_unsound :
  exists s f g phi psi, MtOK s /\ DenM s f phi /\ DenM s g psi /\
    (forall c, phi c = i64_zero) /\
    ~ DenM s g (fun c => i64_sub (phi c) (psi c)).
Proof.
  destruct (mt_const ex1 (INum 0)) as [s z] eqn:Ez.
  destruct (mt_const_ok ex1 (INum 0) s z ex1_ok wf_zero Ez) as [B [X [Dz _]]].
  assert (O1 : ref_ok ex1 ex_x1) by (vm_compute; eexists; reflexivity).
  pose proof (mx_ref_ok ex1 s _ X O1) as Ox.
  destruct (denm_exists s ex_x1 B Ox) as [psi Dpsi].
  exists s, z, ex_x1, (fun _ => i64_zero), psi.
  split; [exact B|]. split; [exact Dz|]. split; [exact Dpsi|]. split; [reflexivity|].
  intros D.
  assert (Hc : bchoice (fun _ => 0)) by (intros l; lia).
  pose proof (denm_unique s ex_x1 _ _ Dpsi D (fun _ => 0) Hc) as U. cbv beta in U.
  assert (V : psi (fun _ => 0) = i64_one).
  { apply code_inj. pose proof (proj2 Dpsi (fun _ => 0) Hc) as E.
    assert (E' : semk s (S (nlevels s)) ex_x1 (fun _ => 0) = Some (code i64_one)).
    { rewrite (mx_nlevels ex1 s X), (semk_mext ex1 s (mo_wf ex1 ex1_ok) X _ _ _ O1). vm_compute. reflexivity. }
    congruence. }
  rewrite V in U. vm_compute in U. discriminate.
Qed.

(** a result of [max] stored under the key (Min, f, g) is not a correct cache
    entry: whoever asks for [min f g] with the same key would be served the
    maximum *)
Theorem max_under_min_key_unsound :
  exists s f g r phi psi, MtOK s /\ DenM s f phi /\ DenM s g psi /\
    DenM s r (fun c => i64_max (phi c) (psi c)) /\
    ~ mentry_ok s (mop_code MMin) [f; g] r.
Proof.
  destruct (bin ex1 [] MMax ex_x0 ex_f) as [[[s c] r]|] eqn:Er; [|vm_compute in Er; discriminate].
  assert (O0 : ref_ok ex1 ex_x0) by (vm_compute; eexists; reflexivity).
  assert (Of : ref_ok ex1 ex_f) by (vm_compute; eexists; reflexivity).
  destruct (denm_exists ex1 ex_x0 ex1_ok O0) as [phi Dphi].
  destruct (denm_exists ex1 ex_f ex1_ok Of) as [psi Dpsi].
  destruct (mt_apply_bin_ok mgt_id acache ac_get ac_add ac_lossy MMax (S (nlevels ex1)) ex1 [] ex_x0 ex_f
              phi psi ex1_ok (mac_empty_ok ex1) Dphi Dpsi ltac:(lia)) as [s' [c' [r' [E [B [X [_ [D _]]]]]]]].
  unfold bin in Er. rewrite Er in E. inversion E; subst s' c' r'. clear E.
  pose proof (denm_mext ex1 s _ _ ex1_ok X Dphi) as Dphi'.
  pose proof (denm_mext ex1 s _ _ ex1_ok X Dpsi) as Dpsi'.
  exists s, ex_x0, ex_f, r, phi, psi.
  split; [exact B|]. split; [exact Dphi'|]. split; [exact Dpsi'|]. split; [exact D|].
  intros [Hm _]. destruct (Hm MMin eq_refl) as [pa [pb [Da [Db Dr]]]].
  (* under the choice x0 = 1, x1 = 0: x0 = 1, f = 3, max = 3, min = 1 *)
  set (c0 := fun l : nat => match l with 0 => 0 | _ => 1 end).
  assert (Hc : bchoice c0) by (intros [|[|l]]; simpl; lia).
  pose proof (denm_unique s r _ _ D Dr c0 Hc) as U. cbv beta in U. simpl mop_eval in U.
  rewrite (denm_unique s _ pa phi Da Dphi' c0 Hc), (denm_unique s _ pb psi Db Dpsi' c0 Hc) in U.
  assert (V0 : phi c0 = INum 1).
  { apply code_inj. pose proof (proj2 Dphi c0 Hc) as E1.
    assert (E2 : semk ex1 (S (nlevels ex1)) ex_x0 c0 = Some (code (INum 1))) by (vm_compute; reflexivity).
    congruence. }
  assert (V1 : psi c0 = INum 3).
  { apply code_inj. pose proof (proj2 Dpsi c0 Hc) as E1.
    assert (E2 : semk ex1 (S (nlevels ex1)) ex_f c0 = Some (code (INum 3))) by (vm_compute; reflexivity).
    congruence. }
  rewrite V0, V1 in U. vm_compute in U. discriminate.
Qed.

(** ** Statements used by Props/C10.v *)

Theorem mt_invariant_checker :
  forall s, mt_ok_b s = true <->
    (WF s /\ s_kind s = KMtbdd /\ forall t c, term_val s t = Some c -> wf (decode c)).
Proof.
  intros s. rewrite mt_ok_b_spec. split.
  - intros B. split; [apply (mo_wf s B)|]. split; [apply (mo_kind s B) | apply (mo_vals s B)].
  - intros [A [B C]]. constructor; assumption.
Qed.

Theorem mt_code_bijection :
  (forall v, decode (code v) = v) /\ (forall n, code (decode n) = n).
Proof. exact (conj decode_code code_decode). Qed.

Theorem mt_hypotheses_satisfiable :
  MtOK ex0 /\ MtOK ex1 /\ MCacheOK ac_get ex1 [] /\
  ref_ok ex1 ex_f /\ ref_ok ex1 ex_x0 /\ Cube ex1 ex_x0 [(0, true)] /\
  vt ex1 ex_f = [Some (INum 0); Some (INum 3); Some (INum 1); Some (INum 4)].
Proof.
  split; [exact ex0_ok|]. split; [exact ex1_ok|]. split; [apply mac_empty_ok|].
  split; [vm_compute; eexists; reflexivity|]. split; [vm_compute; eexists; reflexivity|].
  split; [apply (cube_lits_sound ex1 ex1_ok 3); vm_compute; reflexivity | exact ex_f_table].
Qed.

Theorem mt_cache_instances :
  lossy ac_get ac_add /\ lossy nc_get nc_add /\
  (forall s, MCacheOK ac_get s []) /\ (forall s c, MCacheOK nc_get s c).
Proof. exact (conj ac_lossy (conj nc_lossy (conj mac_empty_ok mnc_ok))). Qed.
