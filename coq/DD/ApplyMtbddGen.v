(** * DD/ApplyMtbdd.v is DD/MtG.v at the terminal type [I64]

    The algorithms of DD/ApplyMtbdd.v are those of DD/MtG.v at
    [MtI64.i64_alg], up to the names of the constructors of [mop], [mview],
    [mtb_res] and [rin_res], which each of the two files declares for itself.
    [gop], [gview], [gres], [grin] translate them; one equation per algorithm
    that mentions one of these types says that the two run alike (the others,
    [mt_const], [mt_var], [mt_eval], [mt_ok_b], [cube_lits], are convertible).
    Through these equations the theorems of DD/ApplyMtbdd*.v follow from
    those of DD/MtG*.v ([MtI64.i64_laws]). *)

From Coq Require Import List NArith Bool Arith.
From OxiVerif Require Import DD.Table DD.Sem DD.Build DD.Apply Num.I64 DD.ApplyMtbdd DD.MtI64.
From OxiVerif Require DD.MtG.
Import ListNotations.

#[local] Existing Instance i64_alg.

Definition gop (o : mop) : MtG.mop :=
  match o with
  | MAdd => MtG.MAdd | MSub => MtG.MSub | MMul => MtG.MMul
  | MDiv => MtG.MDiv | MMin => MtG.MMin | MMax => MtG.MMax
  end.

Definition aop (o : MtG.mop) : mop :=
  match o with
  | MtG.MAdd => MAdd | MtG.MSub => MSub | MtG.MMul => MMul
  | MtG.MDiv => MDiv | MtG.MMin => MMin | MtG.MMax => MMax
  end.

Definition gview (v : mview) : MtG.mview :=
  match v with MI nd => MtG.MI nd | MT a => MtG.MT a end.

Definition gres (r : mtb_res) : MtG.mtb_res :=
  match r with MDone s r => MtG.MDone s r | MBin o a b => MtG.MBin (gop o) a b end.

Definition grin (r : rin_res) : MtG.rin_res :=
  match r with RDone r => MtG.RDone r | RRec v f nd => MtG.RRec v f nd end.

Lemma aop_gop : forall o, aop (gop o) = o.
Proof. intros []; reflexivity. Qed.

Lemma mop_code_g : forall o, MtG.mop_code (gop o) = mop_code o.
Proof. intros []; reflexivity. Qed.

Lemma mop_eval_g : forall o x y, MtG.mop_eval (gop o) x y = mop_eval o x y.
Proof. intros []; reflexivity. Qed.

Lemma get_terminal_g : forall s v, MtG.get_terminal s v = get_terminal s v.
Proof. reflexivity. Qed.

Lemma mt_view_g : forall s r, MtG.mt_view s r = option_map gview (mt_view s r).
Proof.
  intros s [t|id]; simpl; [destruct (term_val s t) | destruct (find_node s id)]; reflexivity.
Qed.

Lemma mt_view_some_g : forall s r v, mt_view s r = Some v -> MtG.mt_view s r = Some (gview v).
Proof. intros s r v E. rewrite mt_view_g, E. reflexivity. Qed.

Lemma gview_MI : forall v, (exists nd, gview v = MtG.MI nd) <-> (exists nd, v = MI nd).
Proof. intros [n|a]; split; intros [nd E]; try discriminate; exists n; reflexivity. Qed.

Lemma olevel_g : forall v, MtG.olevel (gview v) = olevel v.
Proof. intros []; reflexivity. Qed.

Lemma mt_cof_g : forall r v lvl, MtG.mt_cof r (gview v) lvl = mt_cof r v lvl.
Proof. intros r []; reflexivity. Qed.

Lemma done_val_g : forall s v, MtG.done_val s v = gres (done_val s v).
Proof.
  intros s v. unfold MtG.done_val, done_val. rewrite get_terminal_g.
  destruct (get_terminal s v). reflexivity.
Qed.

(** In each of the equations below the two sides are the same program text;
    the proof analyses the scrutinees one after the other in program order. *)
Ltac same_branch :=
  match goal with
  | |- context [option_map gview (mt_view ?s ?r)] =>
    destruct (mt_view s r) as [[?|?]|]; cbn [option_map gview]
  | |- context [if ?b then _ else _] => destruct b
  | |- context [match ?x with _ => _ end] => destruct x
  end.

Lemma mt_tb_g : forall gt s op f g vf vg,
  MtG.mt_tb gt s (gop op) f g (gview vf) (gview vg) = gres (mt_tb gt s op f g vf vg).
Proof.
  intros gt s op f g vf vg.
  destruct op, vf as [nf|a], vg as [ng|b]; cbn -[i64_partial_cmp]; rewrite ?done_val_g;
    repeat same_branch; reflexivity.
Qed.

Section Cache.
Variable gt : ref -> ref -> bool.
Variable C : Type.
Variable cget : C -> N -> list ref -> option ref.
Variable cadd : C -> N -> list ref -> ref -> C.

Lemma mt_apply_bin_g : forall fuel s c op f g,
  MtG.mt_apply_bin gt C cget cadd fuel s c (gop op) f g = mt_apply_bin gt C cget cadd fuel s c op f g.
Proof.
  induction fuel as [|n IH]; intros s c op f g; [reflexivity|].
  cbn [MtG.mt_apply_bin mt_apply_bin]. rewrite !mt_view_g.
  destruct (mt_view s f) as [vf|]; [|reflexivity]. destruct (mt_view s g) as [vg|]; [|reflexivity].
  cbn [option_map]. rewrite mt_tb_g.
  destruct (mt_tb gt s op f g vf vg) as [s' h|o a b]; cbn [gres]; [reflexivity|].
  change MtG.omin with omin. rewrite mop_code_g, !olevel_g.
  destruct (cget c (mop_code o) [a; b]); [reflexivity|].
  destruct (omin (olevel vf) (olevel vg)) as [lvl|]; [|reflexivity]. rewrite !mt_cof_g.
  destruct (mt_cof f vf lvl) as [[f0 f1]|]; [|reflexivity]. destruct (mt_cof g vg lvl) as [[g0 g1]|]; [|reflexivity].
  rewrite IH. destruct (mt_apply_bin gt C cget cadd n s c op f0 g0) as [[[s1 c1] t]|]; [|reflexivity].
  rewrite IH. reflexivity.
Qed.

Lemma mt_apply_ite_g : forall fuel s c f g h,
  MtG.mt_apply_ite C cget cadd fuel s c f g h = mt_apply_ite C cget cadd fuel s c f g h.
Proof.
  induction fuel as [|n IH]; intros s c f g h; [reflexivity|].
  cbn [MtG.mt_apply_ite mt_apply_ite]. change MtG.mcode_ite with mcode_ite. rewrite !mt_view_g.
  destruct (ref_eqb g h); [reflexivity|].
  destruct (mt_view s f) as [[fnode|t]|]; cbn [option_map gview]; try reflexivity.
  destruct (cget c mcode_ite [f; g; h]); [reflexivity|].
  destruct (mt_view s g) as [vg|]; [|reflexivity]. destruct (mt_view s h) as [vh|]; [|reflexivity].
  cbn [option_map]. change MtG.omin with omin. rewrite !olevel_g.
  destruct (omin (omin (Some (nstored fnode)) (olevel vg)) (olevel vh)) as [lvl|]; [|reflexivity].
  rewrite !mt_cof_g. destruct (cof2 f fnode lvl) as [[ft fe]|]; [|reflexivity].
  destruct (mt_cof g vg lvl) as [[g1 g0]|]; [|reflexivity]. destruct (mt_cof h vh lvl) as [[h1 h0]|]; [|reflexivity].
  rewrite IH. destruct (mt_apply_ite C cget cadd n s c ft g1 h1) as [[[s1 c1] t]|]; [|reflexivity].
  rewrite IH. reflexivity.
Qed.

Lemma mt_restrict_inner_g : forall fuel s f fnode flevel vars vnode,
  MtG.mt_restrict_inner fuel s f fnode flevel vars vnode =
  option_map grin (mt_restrict_inner fuel s f fnode flevel vars vnode).
Proof.
  induction fuel as [|n IH]; intros s f fnode flevel vars vnode; [reflexivity|].
  cbn [MtG.mt_restrict_inner mt_restrict_inner MtG.t_is_one i64_alg].
  repeat (rewrite ?mt_view_g, ?IH; try reflexivity; same_branch).
Qed.

Lemma mt_restrict_g : forall fuel s c f vars,
  MtG.mt_restrict C cget cadd fuel s c f vars = mt_restrict C cget cadd fuel s c f vars.
Proof.
  induction fuel as [|n IH]; intros s c f vars; [reflexivity|].
  cbn [MtG.mt_restrict mt_restrict]. change MtG.mcode_restrict with mcode_restrict.
  change (MtG.rin_fuel s) with (rin_fuel s). rewrite !mt_view_g.
  destruct (mt_view s f) as [[fnode|a]|], (mt_view s vars) as [[vnode|b]|];
    cbn [option_map gview]; try reflexivity.
  rewrite mt_restrict_inner_g.
  destruct (mt_restrict_inner (rin_fuel s) s f fnode (nstored fnode) vars vnode) as [[r|vars' f' fnode']|];
    cbn [option_map grin]; try reflexivity.
  destruct (cget c mcode_restrict [f'; vars']); [reflexivity|].
  destruct (nchildren fnode') as [|ft [|fe [|x l]]]; try reflexivity.
  rewrite IH. destruct (mt_restrict C cget cadd n s c (eref ft) vars') as [[[s1 c1] t]|]; [|reflexivity].
  rewrite IH. reflexivity.
Qed.

End Cache.
