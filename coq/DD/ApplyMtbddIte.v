(** * Correctness of the MTBDD if-then-else (DD/ApplyMtbdd.v: [mt_apply_ite] =
      [apply_ite] of oxidd-rules-mtbdd/src/apply_rec.rs)

    [mt_apply_ite_ok]: the result denotes
    [fun c => if is_zero (phi c) then theta c else psi c] - for a 0-1-valued
    condition [phi] this is "psi where phi = 1, theta where phi = 0"
    ([mt_apply_ite_select]); the table is only extended, [MtOK]/[MCacheOK] are
    preserved, an existing reference of the result function is returned
    unchanged.  Instances of the theorems of DD/MtGIte.v at [MtI64.i64_alg]. *)

From Coq Require Import List NArith ZArith PArith Bool Arith Lia FMapPositive.
From OxiVerif Require Import DD.Table DD.TableProofs DD.Canon DD.Sem DD.Build DD.BuildProofs
  DD.Apply DD.ApplyProofs DD.ApplyMtbdd DD.ApplyMtbddBase DD.ApplyMtbddProofs Num.I64 Num.I64Proofs.
From OxiVerif Require DD.MtG DD.MtGBase DD.MtGProofs DD.MtGIte.
From OxiVerif Require Import DD.MtI64 DD.ApplyMtbddGen.
Import ListNotations.

#[local] Existing Instance i64_alg.
#[local] Existing Instance i64_laws.

Section IteSec.
Variable gt : ref -> ref -> bool.
Variable C : Type.
Variable cget : C -> N -> list ref -> option ref.
Variable cadd : C -> N -> list ref -> ref -> C.
Hypothesis Hlossy : lossy cget cadd.

Lemma omin3_level : forall s idf fnode g h vg vh, WF s ->
  find_node s idf = Some fnode -> mt_view s g = Some vg -> mt_view s h = Some vh ->
  omin (omin (Some (nstored fnode)) (olevel vg)) (olevel vh)
  = Some (Nat.min (Nat.min (nlevel fnode) (rlevel s g)) (rlevel s h)).
Proof.
  intros s idf fnode g h vg vh H Ef Vg Vh. rewrite <- !olevel_g.
  exact (MtGIte.omin3_level s idf fnode g h _ _ H Ef (mt_view_some_g s g vg Vg) (mt_view_some_g s h vh Vh)).
Qed.

Theorem mt_apply_ite_ok : forall fuel s c f g h phi psi theta,
  MtOK s -> MCacheOK cget s c -> DenM s f phi -> DenM s g psi -> DenM s h theta ->
  nlevels s - Nat.min (Nat.min (rlevel s f) (rlevel s g)) (rlevel s h) < fuel ->
  mresult_ok C cget s c (mt_apply_ite C cget cadd fuel s c f g h)
             (fun c0 => if i64_is_zero (phi c0) then theta c0 else psi c0).
Proof.
  intros fuel s c f g h phi psi theta B O Df Dg Dh Hfuel. rewrite <- mt_apply_ite_g. apply mresult_ok_a.
  exact (MtGIte.mt_apply_ite_ok (TA := i64_alg) C cget cadd Hlossy fuel s c f g h phi psi theta
           (proj1 (MtOK_g s) B) (proj1 (MCacheOK_g C cget s c) O) Df Dg Dh Hfuel).
Qed.

(** the property's reading: where the condition is 0 the else-operand is
    selected, elsewhere (in particular where it is 1) the then-operand; no
    assumption on the condition is needed for this model of the release build
    (the code [debug_assert!]s that a terminal condition other than 0 is 1) *)
Theorem mt_apply_ite_select : forall fuel s c f g h phi psi theta,
  MtOK s -> MCacheOK cget s c -> DenM s f phi -> DenM s g psi -> DenM s h theta ->
  nlevels s - Nat.min (Nat.min (rlevel s f) (rlevel s g)) (rlevel s h) < fuel ->
  exists s' c' r, mt_apply_ite C cget cadd fuel s c f g h = Some (s', c', r) /\
    MtOK s' /\ mext s s' /\ MCacheOK cget s' c' /\
    exists rho, DenM s' r rho /\
      forall c0, bchoice c0 ->
        (phi c0 = i64_one -> rho c0 = psi c0) /\ (phi c0 = i64_zero -> rho c0 = theta c0) /\
        (phi c0 <> i64_zero -> rho c0 = psi c0).
Proof.
  intros fuel s c f g h phi psi theta B O Df Dg Dh Hfuel.
  destruct (MtGIte.mt_apply_ite_select (TA := i64_alg) C cget cadd Hlossy fuel s c f g h phi psi theta
              (proj1 (MtOK_g s) B) (proj1 (MCacheOK_g C cget s c) O) Df Dg Dh Hfuel)
    as (s' & c' & r & E & B' & X & O' & R).
  rewrite mt_apply_ite_g in E. exists s', c', r. repeat (split; [auto with mtg|]). exact R.
Qed.

End IteSec.
