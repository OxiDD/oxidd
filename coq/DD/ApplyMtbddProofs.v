(** * [terminal_bin] and [apply_bin] of MTBDD<I64> (DD/ApplyMtbdd.v: [mt_tb],
      [mt_apply_bin]): the theorems of DD/MtGProofs.v at [MtI64.i64_alg]

    The predicates [Cube], [ovr], [tb_post], [mentry_ok], [MCacheOK],
    [mresult_ok] are stated for [I64] (see the note at [MtOK],
    DD/ApplyMtbddBase.v); [Cube_g], [MCacheOK_g], [tb_post_a], [mresult_ok_a]
    relate them to the generic ones, and [mt_tb_sound], [mt_apply_bin_ok] are
    the generic theorems read through these and the program equations of
    DD/ApplyMtbddGen.v. *)

From Coq Require Import List NArith ZArith PArith Bool Arith Lia FMapPositive.
From OxiVerif Require Import DD.Table DD.TableProofs DD.Canon DD.Sem DD.Build DD.BuildProofs
  DD.Apply DD.ApplyProofs DD.ApplyMtbdd DD.ApplyMtbddBase Num.I64 Num.I64Proofs.
From OxiVerif Require DD.MtG DD.MtGBase DD.MtGProofs.
From OxiVerif Require Import DD.MtI64 DD.ApplyMtbddGen.
Import ListNotations.

#[local] Existing Instance i64_alg.
#[local] Existing Instance i64_laws.

(** ** Cubes *)

(** [r] is a product of literals: a chain of nodes (level, rest, 0) (positive
    literal [x]) or (level, 0, rest) (negative literal [1 - x]) that ends in
    the terminal 1.  [lits] = the literals as (level, polarity), top-down. *)
Inductive Cube (s : snap) : ref -> list (nat * bool) -> Prop :=
| CubeOne : forall t, term_val s t = Some (code i64_one) -> Cube s (RT t) []
| CubePos : forall id nd rest t0 lits,
    find_node s id = Some nd -> nchildren nd = [E rest; E (RT t0)] ->
    term_val s t0 = Some (code i64_zero) -> Cube s rest lits ->
    Cube s (RN id) ((nlevel nd, true) :: lits)
| CubeNeg : forall id nd rest t0 lits,
    find_node s id = Some nd -> nchildren nd = [E (RT t0); E rest] ->
    term_val s t0 = Some (code i64_zero) -> Cube s rest lits ->
    Cube s (RN id) ((nlevel nd, false) :: lits).

Lemma Cube_g : forall s r lits, Cube s r lits <-> MtGProofs.Cube s r lits.
Proof. intros s r lits. split; intros H; induction H; econstructor; eassumption. Qed.

(** the choice [c] with the levels of the literals forced (child 0 = the
    level's variable is true) *)
Definition ovr (lits : list (nat * bool)) (c : nat -> nat) : nat -> nat :=
  fun l => match assoc_nat lits l with
           | Some b => if b then 0 else 1
           | None => c l
           end.

Lemma ovr_bchoice : forall lits c, bchoice c -> bchoice (ovr lits c).
Proof. exact MtGProofs.ovr_bchoice. Qed.

Lemma cube_mext : forall s s' r lits, mext s s' -> Cube s r lits -> Cube s' r lits.
Proof.
  intros s s' r lits X Hc. apply Cube_g.
  exact (MtGProofs.cube_mext s s' r lits (proj1 (mext_g s s') X) (proj1 (Cube_g s r lits) Hc)).
Qed.

(** ** Every arm of [terminal_bin] *)

(** a finished result: the table is only extended, the result denotes [Phi],
    and if [Phi] already had a reference nothing was created *)
Definition tb_done_ok (s s' : snap) (r : ref) (Phi : mfun) : Prop :=
  MtOK s' /\ mext s s' /\ DenM s' r Phi /\
  (forall r0, DenM s r0 Phi -> s' = s /\ r = r0).

Lemma mop_code_inj : forall o o', mop_code o = mop_code o' -> o = o'.
Proof. intros [] [] E; simpl in E; try discriminate; reflexivity. Qed.

(** the operators whose operands [terminal_bin] may swap *)
Definition mop_comm (o : mop) : Prop := forall x y, mop_eval o x y = mop_eval o y x.

Section TB.
Variable gt : ref -> ref -> bool.

Definition tb_post (s : snap) (op : mop) (f g : ref) (vf vg : mview) (phi psi : mfun)
    (res : mtb_res) : Prop :=
  match res with
  | MDone s' r => tb_done_ok s s' r (fun c => mop_eval op (phi c) (psi c))
  | MBin o a b =>
    o = op /\ ((exists nd, vf = MI nd) \/ (exists nd, vg = MI nd)) /\
    ((a = f /\ b = g) \/ (a = g /\ b = f /\ mop_comm op))
  end.

Lemma mop_comm_a : forall op, MtGProofs.mop_comm (gop op) -> mop_comm op.
Proof.
  intros op H x y. destruct op; cbn [mop_eval].
  - apply i64_add_comm.
  - (* Sub is not commutative: 1 - 0 <> 0 - 1 *)
    specialize (H (INum 1) (INum 0) eq_refl eq_refl). discriminate H.
  - apply i64_mul_comm.
  - (* nor is Div: 1 / 0 <> 0 / 1 *)
    specialize (H (INum 1) (INum 0) eq_refl eq_refl). discriminate H.
  - apply i64_min_comm.
  - apply i64_max_comm.
Qed.

Lemma tb_post_a : forall s op f g vf vg phi psi res,
  MtGProofs.tb_post s (gop op) f g (gview vf) (gview vg) phi psi (gres res) ->
  tb_post s op f g vf vg phi psi res.
Proof.
  intros s op f g vf vg phi psi [s' r|o a b]; cbn [gres MtGProofs.tb_post tb_post].
  - intros (B & X & D & S). split; [apply MtOK_g, B|]. split; [apply mext_g, X|]. split.
    + apply (denm_ext s' r _ _ D). intros c _. apply mop_eval_g.
    + intros r0 D0. apply S. apply (denm_ext s r0 _ _ D0). intros c _. symmetry. apply mop_eval_g.
  - intros (Eo & Hv & Hab). split; [rewrite <- (aop_gop o), Eo; apply aop_gop|].
    split; [rewrite <- !gview_MI; exact Hv|].
    destruct Hab as [Hab|(Ea & Eb & Hc)]; [left; exact Hab | right; auto using mop_comm_a].
Qed.

Theorem mt_tb_sound : forall s op f g vf vg phi psi, MtOK s ->
  DenM s f phi -> DenM s g psi -> mt_view s f = Some vf -> mt_view s g = Some vg ->
  tb_post s op f g vf vg phi psi (mt_tb gt s op f g vf vg).
Proof.
  intros s op f g vf vg phi psi B Df Dg Vf Vg. apply tb_post_a. rewrite <- mt_tb_g.
  exact (MtGProofs.mt_tb_sound (TA := i64_alg) gt s (gop op) f g _ _ phi psi (proj1 (MtOK_g s) B) Df Dg
           (mt_view_some_g s f vf Vf) (mt_view_some_g s g vg Vg)).
Qed.

End TB.

(** ** Caches *)

Section CacheSec.
Variable gt : ref -> ref -> bool.
Variable C : Type.
Variable cget : C -> N -> list ref -> option ref.
Variable cadd : C -> N -> list ref -> ref -> C.
Hypothesis Hlossy : lossy cget cadd.

(** an entry is correct in table [s]: the key determines the pointwise
    meaning of the value *)
Definition mentry_ok (s : snap) (code : N) (args : list ref) (r : ref) : Prop :=
  match args with
  | [f; g] =>
    (forall o, code = mop_code o ->
       exists phi psi, DenM s f phi /\ DenM s g psi /\
                       DenM s r (fun c => mop_eval o (phi c) (psi c))) /\
    (code = mcode_restrict ->
       exists phi lits, DenM s f phi /\ Cube s g lits /\
                        DenM s r (fun c => phi (ovr lits c)))
  | [f; g; h] => code = mcode_ite ->
      exists phi psi theta, DenM s f phi /\ DenM s g psi /\ DenM s h theta /\
        DenM s r (fun c => if i64_is_zero (phi c) then theta c else psi c)
  | _ => True
  end.

Definition MCacheOK (s : snap) (c : C) : Prop :=
  forall code args r, cget c code args = Some r -> mentry_ok s code args r.

Lemma mentry_ok_g : forall s opc args r,
  mentry_ok s opc args r <-> MtGProofs.mentry_ok s opc args r.
Proof.
  intros s opc args r. unfold mentry_ok, MtGProofs.mentry_ok.
  destruct args as [|f [|g [|h [|x rest]]]]; try reflexivity.
  setoid_rewrite Cube_g. apply and_iff_compat_r. split; intros H o E.
  - specialize (H (aop o)). destruct o; exact (H E).
  - specialize (H (gop o)). destruct o; exact (H E).
Qed.

Lemma MCacheOK_g : forall s c, MCacheOK s c <-> MtGProofs.MCacheOK cget s c.
Proof. intros s c. split; intros H opc args r E; apply mentry_ok_g, H, E. Qed.

Lemma mcacheok_mext : forall s s' c, MtOK s -> mext s s' -> MCacheOK s c -> MCacheOK s' c.
Proof.
  intros s s' c B X O. apply MCacheOK_g.
  exact (MtGProofs.mcacheok_mext C cget s s' c (proj1 (MtOK_g s) B) (proj1 (mext_g s s') X) (proj1 (MCacheOK_g s c) O)).
Qed.

Definition mresult_ok (s : snap) (c : C) (res : option (snap * C * ref)) (Phi : mfun) : Prop :=
  exists s' c' r, res = Some (s', c', r) /\
    MtOK s' /\ mext s s' /\ MCacheOK s' c' /\ DenM s' r Phi /\
    (* if the result function already has a reference, that reference is
       returned and the table is unchanged *)
    (forall r0, DenM s r0 Phi -> s' = s /\ r = r0).

Lemma mresult_ok_a : forall s c res Phi,
  MtGProofs.mresult_ok C cget s c res Phi -> mresult_ok s c res Phi.
Proof.
  intros s c res Phi (s' & c' & r & E & B & X & O & D). exists s', c', r.
  split; [exact E|]. split; [apply MtOK_g, B|]. split; [apply mext_g, X|].
  split; [apply MCacheOK_g, O | exact D].
Qed.

(** the split level of two operands that are not both terminals *)
Lemma omin_level : forall s f g vf vg, WF s -> mt_view s f = Some vf -> mt_view s g = Some vg ->
  ((exists nd, vf = MI nd) \/ (exists nd, vg = MI nd)) ->
  omin (olevel vf) (olevel vg) = Some (Nat.min (rlevel s f) (rlevel s g)) /\
  Nat.min (rlevel s f) (rlevel s g) < nlevels s.
Proof.
  intros s f g vf vg H Vf Vg Hi. rewrite <- !olevel_g. rewrite <- !gview_MI in Hi.
  exact (MtGProofs.omin_level s f g _ _ H (mt_view_some_g s f vf Vf) (mt_view_some_g s g vg Vg) Hi).
Qed.

Theorem mt_apply_bin_ok : forall op fuel s c f g phi psi,
  MtOK s -> MCacheOK s c -> DenM s f phi -> DenM s g psi ->
  nlevels s - Nat.min (rlevel s f) (rlevel s g) < fuel ->
  mresult_ok s c (mt_apply_bin gt C cget cadd fuel s c op f g)
             (fun c0 => mop_eval op (phi c0) (psi c0)).
Proof.
  intros op fuel s c f g phi psi B O Df Dg Hfuel. rewrite <- mt_apply_bin_g. apply mresult_ok_a.
  apply (MtGProofs.mresult_ok_ext (TA := i64_alg) C cget s c _
           (fun c0 => MtG.mop_eval (TA := i64_alg) (gop op) (phi c0) (psi c0)));
    [|intros c0 _; apply mop_eval_g].
  exact (MtGProofs.mt_apply_bin_ok (TA := i64_alg) gt C cget cadd Hlossy (gop op) fuel s c f g phi psi
           (proj1 (MtOK_g s) B) (proj1 (MCacheOK_g s c) O) Df Dg Hfuel).
Qed.

End CacheSec.

Arguments MCacheOK {C}.
Arguments mentry_ok s code args r : simpl never.

#[export] Hint Resolve <- Cube_g MCacheOK_g : mtg.
