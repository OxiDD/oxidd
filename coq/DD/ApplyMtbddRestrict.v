(** * Correctness of the MTBDD restrict (DD/ApplyMtbdd.v: [mt_restrict_inner],
      [mt_restrict] = [restrict] of oxidd-rules-mtbdd/src/apply_rec.rs)

    For a cube [vars] with literal list [lits] ([Cube], DD/ApplyMtbddProofs.v)
    [mt_restrict_ok]: the result denotes [fun c => phi (ovr lits c)]: the
    operand's function with the levels of the literals forced.  Instances of
    the theorems of DD/MtGRestrict.v at [MtI64.i64_alg]. *)

From Coq Require Import List NArith ZArith PArith Bool Arith Lia FMapPositive.
From OxiVerif Require Import DD.Table DD.TableProofs DD.Canon DD.Sem DD.Build DD.BuildProofs
  DD.Apply DD.ApplyProofs DD.ApplyMtbdd DD.ApplyMtbddBase DD.ApplyMtbddProofs Num.I64 Num.I64Proofs.
From OxiVerif Require DD.MtG DD.MtGBase DD.MtGProofs DD.MtGRestrict.
From OxiVerif Require Import DD.MtI64 DD.ApplyMtbddGen.
Import ListNotations.

#[local] Existing Instance i64_alg.
#[local] Existing Instance i64_laws.

Lemma ovr_nil : forall c l, ovr [] c l = c l.
Proof. reflexivity. Qed.

Lemma ovr_cons : forall k b lits c l,
  ovr ((k, b) :: lits) c l = if Nat.eqb k l then (if b then 0 else 1) else ovr lits c l.
Proof. exact MtGRestrict.ovr_cons. Qed.

Lemma ovr_other : forall lits c l, (forall b, ~ In (l, b) lits) -> ovr lits c l = c l.
Proof. exact MtGRestrict.ovr_other. Qed.

(** [ovr] keeps two choices equal where they were equal *)
Lemma ovr_agree : forall lits c c' (P : nat -> Prop),
  (forall l, P l -> c l = c' l) -> forall l, P l -> ovr lits c l = ovr lits c' l.
Proof. exact MtGRestrict.ovr_agree. Qed.

(** what the walk establishes *)
Definition rin_post (s : snap) (L : nat) (phi : mfun) (lits : list (nat * bool)) (res : rin_res) : Prop :=
  match res with
  | RDone r => DenM s r (fun c => phi (ovr lits c))
  | RRec vars' f' fnode' =>
    exists id' phi' lits', f' = RN id' /\ find_node s id' = Some fnode' /\ DenM s f' phi' /\
      Cube s vars' lits' /\ nlevel fnode' < rlevel s vars' /\ L <= nlevel fnode' /\
      (forall c, bchoice c -> phi' (ovr lits' c) = phi (ovr lits c))
  end.

Lemma rin_post_a : forall s L phi lits res,
  MtGRestrict.rin_post s L phi lits (grin res) -> rin_post s L phi lits res.
Proof.
  intros s L phi lits [r|vars' f' fnode']; [exact (fun D => D)|].
  intros (id' & phi' & lits' & P). exists id', phi', lits'. rewrite Cube_g. exact P.
Qed.

Theorem mt_restrict_inner_ok : forall fuel s idf fnode idv vnode phi lits,
  MtOK s -> find_node s idf = Some fnode -> find_node s idv = Some vnode ->
  DenM s (RN idf) phi -> Cube s (RN idv) lits ->
  (nlevels s - nlevel fnode) + (nlevels s - nlevel vnode) < fuel ->
  exists res, mt_restrict_inner fuel s (RN idf) fnode (nlevel fnode) (RN idv) vnode = Some res /\
    rin_post s (nlevel fnode) phi lits res.
Proof.
  intros fuel s idf fnode idv vnode phi lits B Ef Ev Df Hcube Hfuel.
  destruct (MtGRestrict.mt_restrict_inner_ok (TA := i64_alg) fuel s idf fnode idv vnode phi lits (proj1 (MtOK_g s) B)
              Ef Ev Df (proj1 (Cube_g s _ lits) Hcube) Hfuel) as (res & E & P).
  rewrite mt_restrict_inner_g in E.
  destruct (mt_restrict_inner fuel s (RN idf) fnode (nlevel fnode) (RN idv) vnode) as [res'|]; [|discriminate].
  injection E as <-. exists res'. split; [reflexivity | apply rin_post_a, P].
Qed.

(** ** [restrict] *)

Section RestrictSec.
Variable C : Type.
Variable cget : C -> N -> list ref -> option ref.
Variable cadd : C -> N -> list ref -> ref -> C.
Hypothesis Hlossy : lossy cget cadd.

Theorem mt_restrict_ok : forall fuel s c f vars phi lits,
  MtOK s -> MCacheOK cget s c -> DenM s f phi -> Cube s vars lits ->
  nlevels s - rlevel s f < fuel ->
  mresult_ok C cget s c (mt_restrict C cget cadd fuel s c f vars) (fun c0 => phi (ovr lits c0)).
Proof.
  intros fuel s c f vars phi lits B O Df Hcube Hfuel. rewrite <- mt_restrict_g. apply mresult_ok_a.
  exact (MtGRestrict.mt_restrict_ok (TA := i64_alg) C cget cadd Hlossy fuel s c f vars phi lits (proj1 (MtOK_g s) B)
           (proj1 (MCacheOK_g C cget s c) O) Df (proj1 (Cube_g s vars lits) Hcube) Hfuel).
Qed.

End RestrictSec.
