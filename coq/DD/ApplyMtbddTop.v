(** * MTBDD operations: constants, variables, evaluation, the theorems in
      terms of the interpreter [semk] only, cache transparency and history
      independence, cubes

    - [mt_const_ok], [mt_var_ok], [mt_eval_walk_sem], [mt_eval_assignment];
    - [mt_apply_bin_sound], [mt_apply_ite_sound], [mt_restrict_sound]: for every
      [MtOK] table, correct cache of any [lossy] implementation, operand order
      and fuel >= [FUEL s], the operations return a result whose value under
      every choice is the scalar operation applied to the operands' values;
    - [mfun_of], [mt_apply_bin_mfun], [mt_var_mfun]: the same in terms of
      assignments (variable |-> bool) under the table's variable order;
    - [mt_apply_bin_cache_transparent], [mt_*_history_independent]: the
      returned reference does not depend on the cache, the operand order or
      the history;
    - [cube_den]: a [Cube] denotes the product of its literals;
      [cube_lits_sound]: the checker [cube_lits] establishes [Cube].

    Instances of the theorems of DD/MtGTop.v at [MtI64.i64_alg]. *)

From Coq Require Import List NArith ZArith PArith Bool Arith Lia FMapPositive.
From OxiVerif Require Import DD.Table DD.TableProofs DD.Canon DD.Sem DD.Build DD.BuildProofs
  DD.Apply DD.ApplyProofs DD.ApplyEvalProofs DD.ApplyMtbdd DD.ApplyMtbddBase DD.ApplyMtbddProofs
  DD.ApplyMtbddIte DD.ApplyMtbddRestrict Num.I64 Num.I64Proofs.
From OxiVerif Require DD.MtG DD.MtGBase DD.MtGProofs DD.MtGTop.
From OxiVerif Require Import DD.MtI64 DD.ApplyMtbddGen.
Import ListNotations.

#[local] Existing Instance i64_alg.
#[local] Existing Instance i64_laws.

(** ** Cache instances (the instances of DD/Apply.v) *)

Lemma mac_empty_ok : forall s, MCacheOK ac_get s [].
Proof. intros s code args r E. discriminate. Qed.

Lemma mnc_ok : forall s c, MCacheOK nc_get s c.
Proof. intros s c code args r E. discriminate. Qed.

(** ** Constants and variables *)

Theorem mt_const_ok : forall s v s' r, MtOK s -> wf v -> mt_const s v = (s', r) ->
  MtOK s' /\ mext s s' /\ DenM s' r (fun _ => v) /\
  (forall r0, DenM s r0 (fun _ => v) -> s' = s /\ r = r0).
Proof. intros s v s' r. apply get_terminal_ok. Qed.

Lemma wf_one : wf i64_one.
Proof. apply wfb_true. reflexivity. Qed.
Lemma wf_zero : wf i64_zero.
Proof. apply wfb_true. reflexivity. Qed.

Theorem mt_var_ok : forall s v, MtOK s -> v < nlevels s ->
  exists lvl s' r, nth_error (s_v2l s) v = Some lvl /\ mt_var s v = Some (s', r) /\
    MtOK s' /\ mext s s' /\
    DenM s' r (fun c => if Nat.eqb (c lvl) 0 then i64_one else i64_zero).
Proof.
  intros s v B Hv.
  destruct (MtGTop.mt_var_ok s v (proj1 (MtOK_g s) B) Hv) as (lvl & s' & r & E1 & Em & B' & X & D).
  exists lvl, s', r. auto 6 with mtg.
Qed.

(** ** Evaluation *)

Theorem mt_eval_walk_sem : forall s, WF s -> forall fuel r ch,
  mt_eval_walk fuel s r ch =
  option_map decode (semk s fuel r (fun l => if ch l then 1 else 0)).
Proof. exact MtGTop.mt_eval_walk_sem. Qed.

(** value of [r] under [c0]: [semk] with the standard fuel, as a terminal value *)
Definition mvalue (s : snap) (r : ref) (c0 : nat -> nat) (x : i64v) : Prop :=
  semk s (FUEL s) r c0 = Some (code x).

(** the function of a reference in terms of assignments (variable |-> bool)
    under the table's variable order ([choice_of], DD/ApplyEvalProofs.v) *)
Definition mfun_of (s : snap) (r : ref) : asg -> i64v :=
  fun a => match semk s (FUEL s) r (choice_of s a) with Some n => decode n | None => INaN end.

Lemma mfun_of_den : forall s r phi, DenM s r phi -> forall a, mfun_of s r a = phi (choice_of s a).
Proof. exact MtGTop.mfun_of_den. Qed.

(** for an argument list that gives every variable its value under [a],
    [eval] returns the value of the reference's function at [a] *)
Theorem mt_eval_assignment : forall s r (a : asg) args, MtOK s -> ref_ok s r ->
  (forall v b, In (v, b) args -> b = a v /\ v < nlevels s) ->
  (forall v, v < nlevels s -> In v (map fst args)) ->
  mt_eval s r args = Some (mfun_of s r a).
Proof.
  intros s r a args B. exact (MtGTop.mt_eval_assignment s r a args (proj1 (MtOK_g s) B)).
Qed.

(** ** The theorems in terms of [semk] only *)

Section Top.
Variable gt : ref -> ref -> bool.
Variable C : Type.
Variable cget : C -> N -> list ref -> option ref.
Variable cadd : C -> N -> list ref -> ref -> C.
Hypothesis Hlossy : lossy cget cadd.

Theorem mt_apply_bin_sound : forall op fuel s c f g,
  MtOK s -> MCacheOK cget s c -> ref_ok s f -> ref_ok s g -> FUEL s <= fuel ->
  exists s' c' r, mt_apply_bin gt C cget cadd fuel s c op f g = Some (s', c', r) /\
    MtOK s' /\ mext s s' /\ MCacheOK cget s' c' /\ ref_ok s' r /\
    forall c0, bchoice c0 -> exists x y,
      mvalue s f c0 x /\ mvalue s g c0 y /\ mvalue s' r c0 (mop_eval op x y).
Proof.
  intros op fuel s c f g B O Hf Hg Hfuel.
  destruct (MtGTop.mt_apply_bin_sound gt C cget cadd Hlossy (gop op) fuel s c f g
              (proj1 (MtOK_g s) B) (proj1 (MCacheOK_g C cget s c) O) Hf Hg Hfuel)
    as (s' & c' & r & E & B' & X & O' & R & V).
  rewrite mt_apply_bin_g in E. exists s', c', r. repeat (split; [auto with mtg|]).
  intros c0 Hc. destruct (V c0 Hc) as (x & y & W). rewrite mop_eval_g in W. exists x, y. exact W.
Qed.

Theorem mt_apply_ite_sound : forall fuel s c f g h,
  MtOK s -> MCacheOK cget s c -> ref_ok s f -> ref_ok s g -> ref_ok s h -> FUEL s <= fuel ->
  exists s' c' r, mt_apply_ite C cget cadd fuel s c f g h = Some (s', c', r) /\
    MtOK s' /\ mext s s' /\ MCacheOK cget s' c' /\ ref_ok s' r /\
    forall c0, bchoice c0 -> exists x y z,
      mvalue s f c0 x /\ mvalue s g c0 y /\ mvalue s h c0 z /\
      mvalue s' r c0 (if i64_is_zero x then z else y).
Proof.
  intros fuel s c f g h B O Hf Hg Hh Hfuel.
  destruct (MtGTop.mt_apply_ite_sound C cget cadd Hlossy fuel s c f g h
              (proj1 (MtOK_g s) B) (proj1 (MCacheOK_g C cget s c) O) Hf Hg Hh Hfuel)
    as (s' & c' & r & E & B' & X & O' & R).
  rewrite mt_apply_ite_g in E. exists s', c', r. auto 6 with mtg.
Qed.

Theorem mt_restrict_sound : forall fuel s c f vars lits,
  MtOK s -> MCacheOK cget s c -> ref_ok s f -> Cube s vars lits -> FUEL s <= fuel ->
  exists s' c' r, mt_restrict C cget cadd fuel s c f vars = Some (s', c', r) /\
    MtOK s' /\ mext s s' /\ MCacheOK cget s' c' /\ ref_ok s' r /\
    forall c0, bchoice c0 -> exists x,
      mvalue s f (ovr lits c0) x /\ mvalue s' r c0 x.
Proof.
  intros fuel s c f vars lits B O Hf Hcube Hfuel.
  destruct (MtGTop.mt_restrict_sound C cget cadd Hlossy fuel s c f vars lits
              (proj1 (MtOK_g s) B) (proj1 (MCacheOK_g C cget s c) O) Hf (proj1 (Cube_g s vars lits) Hcube) Hfuel)
    as (s' & c' & r & E & B' & X & O' & R).
  rewrite mt_restrict_g in E. exists s', c', r. auto 6 with mtg.
Qed.

(** in terms of assignments *)
Theorem mt_apply_bin_mfun : forall op s c f g,
  MtOK s -> MCacheOK cget s c -> ref_ok s f -> ref_ok s g ->
  exists s' c' r, mt_apply_bin gt C cget cadd (FUEL s) s c op f g = Some (s', c', r) /\
    MtOK s' /\ mext s s' /\ ref_ok s' r /\
    forall a, mfun_of s' r a = mop_eval op (mfun_of s f a) (mfun_of s g a).
Proof.
  intros op s c f g B O Hf Hg.
  destruct (MtGTop.mt_apply_bin_mfun gt C cget cadd Hlossy (gop op) s c f g
              (proj1 (MtOK_g s) B) (proj1 (MCacheOK_g C cget s c) O) Hf Hg)
    as (s' & c' & r & E & B' & X & R & V).
  rewrite mt_apply_bin_g in E. exists s', c', r. repeat (split; [auto with mtg|]).
  intros a. rewrite <- mop_eval_g. apply V.
Qed.

End Top.

Theorem mt_var_mfun : forall s v, MtOK s -> v < nlevels s ->
  exists s' r, mt_var s v = Some (s', r) /\ MtOK s' /\ mext s s' /\ ref_ok s' r /\
    forall a, mfun_of s' r a = if a v then i64_one else i64_zero.
Proof.
  intros s v B Hv.
  destruct (MtGTop.mt_var_mfun s v (proj1 (MtOK_g s) B) Hv) as (s' & r & E & B' & X & R).
  exists s', r. auto 6 with mtg.
Qed.

Theorem mt_const_mfun : forall s v s' r, MtOK s -> wf v -> mt_const s v = (s', r) ->
  MtOK s' /\ mext s s' /\ ref_ok s' r /\ forall a, mfun_of s' r a = v.
Proof.
  intros s v s' r B Hv E.
  destruct (MtGTop.mt_const_mfun (TA := i64_alg) s v s' r (proj1 (MtOK_g s) B) (proj2 (wfb_true v) Hv) E) as (B' & X & R).
  auto with mtg.
Qed.

(** ** The returned handle does not depend on the cache or on history *)

Section Transparent.
(** two arbitrary cache implementations and operand orders *)
Variables gt1 gt2 : ref -> ref -> bool.
Variables C1 C2 : Type.
Variable cget1 : C1 -> N -> list ref -> option ref.
Variable cadd1 : C1 -> N -> list ref -> ref -> C1.
Variable cget2 : C2 -> N -> list ref -> option ref.
Variable cadd2 : C2 -> N -> list ref -> ref -> C2.
Hypothesis L1 : lossy cget1 cadd1.
Hypothesis L2 : lossy cget2 cadd2.

(** (a) whatever the two caches contain (as long as it is correct), the two
    results denote the same function *)
Theorem mt_apply_bin_cache_transparent : forall op s c1 c2 f g fuel1 fuel2 s1 c1' r1 s2 c2' r2,
  MtOK s -> MCacheOK cget1 s c1 -> MCacheOK cget2 s c2 -> ref_ok s f -> ref_ok s g ->
  FUEL s <= fuel1 -> FUEL s <= fuel2 ->
  mt_apply_bin gt1 C1 cget1 cadd1 fuel1 s c1 op f g = Some (s1, c1', r1) ->
  mt_apply_bin gt2 C2 cget2 cadd2 fuel2 s c2 op f g = Some (s2, c2', r2) ->
  forall c0, bchoice c0 -> semk s1 (FUEL s1) r1 c0 = semk s2 (FUEL s2) r2 c0.
Proof.
  intros op s c1 c2 f g fuel1 fuel2 s1 c1' r1 s2 c2' r2 B O1 O2 Hf Hg F1 F2 E1 E2.
  rewrite <- mt_apply_bin_g in E1, E2.
  exact (MtGTop.mt_apply_bin_cache_transparent gt1 gt2 C1 C2 cget1 cadd1 cget2 cadd2 L1 L2 (gop op)
           s c1 c2 f g fuel1 fuel2 s1 c1' r1 s2 c2' r2 (proj1 (MtOK_g s) B)
           (proj1 (MCacheOK_g C1 cget1 s c1) O1) (proj1 (MCacheOK_g C2 cget2 s c2) O2) Hf Hg F1 F2 E1 E2).
Qed.

(** (b) repeating the operation in any later state of the same table (more
    nodes and terminals, any correct cache of any implementation, any operand
    order) returns the identical reference and leaves the table unchanged *)
Theorem mt_apply_bin_history_independent : forall op s c1 f g fuel1 s1 c1' r1,
  MtOK s -> MCacheOK cget1 s c1 -> ref_ok s f -> ref_ok s g -> FUEL s <= fuel1 ->
  mt_apply_bin gt1 C1 cget1 cadd1 fuel1 s c1 op f g = Some (s1, c1', r1) ->
  forall s2 c2 fuel2, MtOK s2 -> mext s1 s2 -> MCacheOK cget2 s2 c2 -> FUEL s2 <= fuel2 ->
  exists c2', mt_apply_bin gt2 C2 cget2 cadd2 fuel2 s2 c2 op f g = Some (s2, c2', r1).
Proof.
  intros op s c1 f g fuel1 s1 c1' r1 B O1 Hf Hg F1 E1 s2 c2 fuel2 B2 X O2 F2.
  rewrite <- mt_apply_bin_g in E1. setoid_rewrite <- mt_apply_bin_g.
  exact (MtGTop.mt_apply_bin_history_independent gt1 gt2 C1 C2 cget1 cadd1 cget2 cadd2 L1 L2 (gop op)
           s c1 f g fuel1 s1 c1' r1 (proj1 (MtOK_g s) B) (proj1 (MCacheOK_g C1 cget1 s c1) O1) Hf Hg F1 E1
           s2 c2 fuel2 (proj1 (MtOK_g s2) B2) (proj1 (mext_g s1 s2) X) (proj1 (MCacheOK_g C2 cget2 s2 c2) O2) F2).
Qed.

Theorem mt_apply_ite_history_independent : forall s c1 f g h fuel1 s1 c1' r1,
  MtOK s -> MCacheOK cget1 s c1 -> ref_ok s f -> ref_ok s g -> ref_ok s h -> FUEL s <= fuel1 ->
  mt_apply_ite C1 cget1 cadd1 fuel1 s c1 f g h = Some (s1, c1', r1) ->
  forall s2 c2 fuel2, MtOK s2 -> mext s1 s2 -> MCacheOK cget2 s2 c2 -> FUEL s2 <= fuel2 ->
  exists c2', mt_apply_ite C2 cget2 cadd2 fuel2 s2 c2 f g h = Some (s2, c2', r1).
Proof.
  intros s c1 f g h fuel1 s1 c1' r1 B O1 Hf Hg Hh F1 E1 s2 c2 fuel2 B2 X O2 F2.
  rewrite <- mt_apply_ite_g in E1. setoid_rewrite <- mt_apply_ite_g.
  exact (MtGTop.mt_apply_ite_history_independent C1 C2 cget1 cadd1 cget2 cadd2 L1 L2
           s c1 f g h fuel1 s1 c1' r1 (proj1 (MtOK_g s) B) (proj1 (MCacheOK_g C1 cget1 s c1) O1) Hf Hg Hh F1 E1
           s2 c2 fuel2 (proj1 (MtOK_g s2) B2) (proj1 (mext_g s1 s2) X) (proj1 (MCacheOK_g C2 cget2 s2 c2) O2) F2).
Qed.

Theorem mt_restrict_history_independent : forall s c1 f vars lits fuel1 s1 c1' r1,
  MtOK s -> MCacheOK cget1 s c1 -> ref_ok s f -> Cube s vars lits -> FUEL s <= fuel1 ->
  mt_restrict C1 cget1 cadd1 fuel1 s c1 f vars = Some (s1, c1', r1) ->
  forall s2 c2 fuel2, MtOK s2 -> mext s1 s2 -> MCacheOK cget2 s2 c2 -> FUEL s2 <= fuel2 ->
  exists c2', mt_restrict C2 cget2 cadd2 fuel2 s2 c2 f vars = Some (s2, c2', r1).
Proof.
  intros s c1 f vars lits fuel1 s1 c1' r1 B O1 Hf Hcube F1 E1 s2 c2 fuel2 B2 X O2 F2.
  rewrite <- mt_restrict_g in E1. setoid_rewrite <- mt_restrict_g.
  exact (MtGTop.mt_restrict_history_independent C1 C2 cget1 cadd1 cget2 cadd2 L1 L2
           s c1 f vars lits fuel1 s1 c1' r1 (proj1 (MtOK_g s) B) (proj1 (MCacheOK_g C1 cget1 s c1) O1) Hf
           (proj1 (Cube_g s vars lits) Hcube) F1 E1
           s2 c2 fuel2 (proj1 (MtOK_g s2) B2) (proj1 (mext_g s1 s2) X) (proj1 (MCacheOK_g C2 cget2 s2 c2) O2) F2).
Qed.

End Transparent.

(** (c) in its result table the returned reference is THE reference with the
    result's meaning *)
Theorem mt_apply_bin_result_unique : forall gt C cget cadd, lossy cget cadd ->
  forall op fuel s (c : C) f g s' c' r,
  MtOK s -> MCacheOK cget s c -> ref_ok s f -> ref_ok s g -> FUEL s <= fuel ->
  mt_apply_bin gt C cget cadd fuel s c op f g = Some (s', c', r) ->
  forall r0, ref_ok s' r0 ->
    (forall c0, bchoice c0 -> exists x y,
        mvalue s f c0 x /\ mvalue s g c0 y /\ mvalue s' r0 c0 (mop_eval op x y)) ->
    r0 = r.
Proof.
  intros gt C cget cadd L op fuel s c f g s' c' r B O Hf Hg F E r0 H0 Hsem.
  rewrite <- mt_apply_bin_g in E.
  apply (MtGTop.mt_apply_bin_result_unique gt C cget cadd L (gop op) fuel s c f g s' c' r
           (proj1 (MtOK_g s) B) (proj1 (MCacheOK_g C cget s c) O) Hf Hg F E r0 H0).
  intros c0 Hc. destruct (Hsem c0 Hc) as (x & y & W). rewrite <- mop_eval_g in W. exists x, y. exact W.
Qed.

(** ** Cubes *)

(** all literals hold under a choice (child 0 = variable true) *)
Definition lits_hold (lits : list (nat * bool)) (c : nat -> nat) : bool :=
  forallb (fun p : nat * bool => Nat.eqb (c (fst p)) (if snd p then 0 else 1)) lits.

(** a cube denotes the product of its literals: 1 where all hold, 0 elsewhere *)
Theorem cube_den : forall s r lits, MtOK s -> Cube s r lits ->
  DenM s r (fun c => if lits_hold lits c then i64_one else i64_zero).
Proof.
  intros s r lits B Hc. exact (MtGTop.cube_den s r lits (proj1 (MtOK_g s) B) (proj1 (Cube_g s r lits) Hc)).
Qed.

(** the checker establishes [Cube] *)
Theorem cube_lits_sound : forall s, MtOK s -> forall fuel r lits,
  cube_lits fuel s r = Some lits -> Cube s r lits.
Proof.
  intros s B fuel r lits E. apply Cube_g. exact (MtGTop.cube_lits_sound s (proj1 (MtOK_g s) B) fuel r lits E).
Qed.

(** ** restrict in terms of assignments *)

(** the assignment [a] with the variables of the cube's literals forced
    (literal at level [l] = literal of the variable at that level) *)
Definition force_asg (s : snap) (lits : list (nat * bool)) (a : asg) : asg :=
  fun v => match nth_error (s_v2l s) v with
           | Some l => match assoc_nat lits l with Some b => b | None => a v end
           | None => a v
           end.

Section RestrictAsg.
Variable C : Type.
Variable cget : C -> N -> list ref -> option ref.
Variable cadd : C -> N -> list ref -> ref -> C.
Hypothesis Hlossy : lossy cget cadd.

Theorem mt_restrict_mfun : forall s c f vars lits,
  MtOK s -> MCacheOK cget s c -> ref_ok s f -> Cube s vars lits ->
  exists s' c' r, mt_restrict C cget cadd (FUEL s) s c f vars = Some (s', c', r) /\
    MtOK s' /\ mext s s' /\ ref_ok s' r /\
    forall a, mfun_of s' r a = mfun_of s f (force_asg s lits a).
Proof.
  intros s c f vars lits B O Hf Hcube.
  destruct (MtGTop.mt_restrict_mfun C cget cadd Hlossy s c f vars lits
              (proj1 (MtOK_g s) B) (proj1 (MCacheOK_g C cget s c) O) Hf (proj1 (Cube_g s vars lits) Hcube))
    as (s' & c' & r & E & B' & X & R).
  rewrite mt_restrict_g in E. exists s', c', r. auto 6 with mtg.
Qed.

End RestrictAsg.

Theorem mt_apply_ite_mfun : forall (C : Type) cget cadd, lossy cget cadd ->
  forall s (c : C) f g h,
  MtOK s -> MCacheOK cget s c -> ref_ok s f -> ref_ok s g -> ref_ok s h ->
  exists s' c' r, mt_apply_ite C cget cadd (FUEL s) s c f g h = Some (s', c', r) /\
    MtOK s' /\ mext s s' /\ ref_ok s' r /\
    forall a, mfun_of s' r a =
      if i64_is_zero (mfun_of s f a) then mfun_of s h a else mfun_of s g a.
Proof.
  intros C cget cadd L s c f g h B O Hf Hg Hh.
  destruct (MtGTop.mt_apply_ite_mfun C cget cadd L s c f g h
              (proj1 (MtOK_g s) B) (proj1 (MCacheOK_g C cget s c) O) Hf Hg Hh)
    as (s' & c' & r & E & B' & X & R).
  rewrite mt_apply_ite_g in E. exists s', c', r. auto 6 with mtg.
Qed.
