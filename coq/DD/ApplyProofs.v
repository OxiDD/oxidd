(** * Correctness of the BDD apply algorithms (DD/Apply.v)

    - [BddOK]: the invariant (well-formed BDD table with exactly the two
      Boolean terminals), decided by [bdd_ok_b];
    - [Den s r phi]: reference [r] of table [s] denotes the Boolean function
      [phi] of the choice (= assignment by level);
    - [tb_sound]: every case of [terminal_bin] agrees with [eval_bop];
    - [Shared]: what the apply proofs of the kinds have in common (cache
      bookkeeping, the recursion step [gshannon_step], re-running), over an
      abstract kind; instantiated here and in DD/ApplyBcddProofs.v;
    - [CacheOK]: every entry a cache can serve is semantically correct;
    - [apply_not_ok], [apply_bin_ok], [apply_ite_ok]: with fuel [S (nlevels s)]
      the algorithms return (never [None]) a well-formed extension of the
      table, a correct cache, and a reference denoting the connective of the
      operands' functions - for every cache implementation that only ever
      serves what was added ([lossy]);
    - [apply_bin_result_unique], [apply_bin_cache_transparent_sem],
      [apply_not_history_independent], [apply_bin_history_independent],
      [apply_ite_history_independent]: C06. *)

From Coq Require Import List NArith PArith Bool Arith Lia FMapPositive.
From OxiVerif Require Import DD.Table DD.TableProofs DD.Canon DD.Sem DD.Build DD.BuildProofs DD.Apply.
Import ListNotations.

Notation cupd := TableProofs.upd.

(** ** The invariant *)

Record BddOK (s : snap) : Prop := mkBddOK {
  bo_wf : WF s;
  bo_kind : s_kind s = KBdd;
  bo_codes : forall t v, term_val s t = Some v -> v = 0%N \/ v = 1%N;
  bo_false : exists t, term_val s t = Some 0%N;
  bo_true : exists t, term_val s t = Some 1%N
}.

Lemma In_assoc_N : forall (l : list (N * N)) k v,
  NoDup (map fst l) -> In (k, v) l -> assoc_N l k = Some v.
Proof.
  induction l as [|[a b] r IH]; intros k v Hnd Hin; [destruct Hin|].
  simpl in Hnd. inversion Hnd as [|? ? Ha Hr]; subst. simpl.
  destruct Hin as [Hin|Hin].
  - inversion Hin; subst. rewrite N.eqb_refl. reflexivity.
  - destruct (N.eqb_spec a k) as [->|Hne].
    + exfalso. apply Ha. apply (in_map fst) in Hin. exact Hin.
    + apply IH; assumption.
Qed.

Lemma rassoc_N_In : forall l v t, rassoc_N l v = Some t -> In (t, v) l.
Proof.
  induction l as [|[a b] r IH]; intros v t E; simpl in E; [discriminate|].
  destruct (N.eqb_spec b v) as [->|Hne].
  - inversion E; subst. left. reflexivity.
  - right. apply IH. exact E.
Qed.

Lemma rassoc_N_total : forall l v t, In (t, v) l -> exists t', rassoc_N l v = Some t'.
Proof.
  induction l as [|[a b] r IH]; intros v t Hin; [destruct Hin|]. simpl.
  destruct (N.eqb_spec b v) as [->|Hne]; [eauto|].
  destruct Hin as [Hin|Hin]; [inversion Hin; subst; congruence|]. eapply IH; eauto.
Qed.

Lemma term_of_spec : forall s b t, WF s -> term_of s b = Some t -> term_val s t = Some (b2c b).
Proof.
  intros s b t H E. apply rassoc_N_In in E. apply In_assoc_N; [apply (wf_term_ids s H) | exact E].
Qed.

Lemma term_of_total : forall s b, BddOK s -> exists t, term_of s b = Some t.
Proof.
  intros s b B. unfold term_of.
  assert (Hx : exists t, term_val s t = Some (b2c b))
    by (destruct b; [apply (bo_true s B) | apply (bo_false s B)]).
  destruct Hx as [t Ht]. apply assoc_N_In in Ht. eapply rassoc_N_total; eauto.
Qed.

Theorem bdd_ok_b_spec : forall s, bdd_ok_b s = true <-> BddOK s.
Proof.
  intros s. unfold bdd_ok_b. split.
  - intros Hb. apply andb_prop in Hb. destruct Hb as [Hb X1]. apply andb_prop in Hb. destruct Hb as [Hb X0].
    apply andb_prop in Hb. destruct Hb as [Hb Hc]. apply andb_prop in Hb. destruct Hb as [H Hk].
    apply wf_b_spec in H. rewrite forallb_forall in Hc.
    apply existsb_exists in X0. destruct X0 as [p0 [I0 E0]].
    apply existsb_exists in X1. destruct X1 as [p1 [I1 E1]].
    apply N.eqb_eq in E0. apply N.eqb_eq in E1. destruct p0 as [t0 v0], p1 as [t1 v1]. simpl in *. subst.
    constructor; auto.
    + destruct (s_kind s); simpl in Hk; congruence.
    + intros t v E. apply assoc_N_In in E. specialize (Hc _ E). simpl in Hc.
      apply N.leb_le in Hc. lia.
    + exists t0. apply In_assoc_N; [apply (wf_term_ids s H) | exact I0].
    + exists t1. apply In_assoc_N; [apply (wf_term_ids s H) | exact I1].
  - intros B. pose proof (bo_wf s B) as H.
    destruct (bo_false s B) as [t0 E0]. destruct (bo_true s B) as [t1 E1].
    apply andb_true_intro; split; [apply andb_true_intro; split;
      [apply andb_true_intro; split; [apply andb_true_intro; split|]|]|].
    + apply wf_b_spec. exact H.
    + rewrite (bo_kind s B). reflexivity.
    + apply forallb_forall. intros [t v] Hin. simpl. apply N.leb_le.
      assert (E : term_val s t = Some v) by (apply In_assoc_N; [apply (wf_term_ids s H) | exact Hin]).
      destruct (bo_codes s B t v E); lia.
    + apply existsb_exists. exists (t0, 0%N). split; [apply assoc_N_In; exact E0 | reflexivity].
    + apply existsb_exists. exists (t1, 1%N). split; [apply assoc_N_In; exact E1 | reflexivity].
Qed.

Lemma bdd_kary : forall s, BddOK s -> kary (s_kind s).
Proof. intros s B. rewrite (bo_kind s B). split; discriminate. Qed.

Lemma bddok_extends : forall s s', BddOK s -> extends s s' -> WF s' -> BddOK s'.
Proof.
  intros s s' B X H'. constructor.
  - exact H'.
  - rewrite (ext_kind _ _ X). apply (bo_kind s B).
  - intros t v. rewrite (ext_term_val _ _ t X). apply (bo_codes s B).
  - destruct (bo_false s B) as [t E]. exists t. rewrite (ext_term_val _ _ t X). exact E.
  - destruct (bo_true s B) as [t E]. exists t. rewrite (ext_term_val _ _ t X). exact E.
Qed.

(** ** Denotations *)

(** a binary choice at every level *)
Definition bchoice (c : nat -> nat) : Prop := forall l, c l < 2.

Lemma bchoice_ok : forall s c, BddOK s -> (choice_ok s c <-> bchoice c).
Proof. intros s c B. unfold choice_ok, bchoice. rewrite (bo_kind s B). reflexivity. Qed.

Lemma bchoice_upd : forall c l i, bchoice c -> i < 2 -> bchoice (cupd c l i).
Proof. intros c l i Hc Hi x. unfold cupd. destruct (Nat.eqb x l); auto. Qed.

Definition Den (s : snap) (r : ref) (phi : (nat -> nat) -> bool) : Prop :=
  ref_ok s r /\
  forall c, bchoice c -> semk s (S (nlevels s)) r c = Some (b2c (phi c)).

Lemma b2c_inj : forall a b, b2c a = b2c b -> a = b.
Proof. intros [] [] E; simpl in E; congruence. Qed.

Lemma den_ext : forall s r phi phi', Den s r phi ->
  (forall c, bchoice c -> phi c = phi' c) -> Den s r phi'.
Proof. intros s r phi phi' [A B] E. split; [exact A|]. intros c Hc. rewrite <- E by exact Hc. auto. Qed.

Lemma den_unique : forall s r phi phi', Den s r phi -> Den s r phi' ->
  forall c, bchoice c -> phi c = phi' c.
Proof.
  intros s r phi phi' [_ A] [_ B] c Hc. apply b2c_inj.
  specialize (A c Hc). specialize (B c Hc). congruence.
Qed.

Lemma semk_code : forall s, BddOK s -> forall f r c v, semk s f r c = Some v -> v = 0%N \/ v = 1%N.
Proof.
  intros s B. induction f as [|f IH]; intros r c v E.
  - destruct r as [t|id]; [rewrite semk_T in E; apply (bo_codes s B t v E) | discriminate].
  - destruct r as [t|id]; [rewrite semk_T in E; apply (bo_codes s B t v E)|].
    rewrite semk_S in E. destruct (find_node s id) as [nd|]; [|discriminate].
    destruct (nth_error (nchildren nd) (c (nlevel nd))) as [e|]; [|discriminate].
    eapply IH; eauto.
Qed.

Lemma den_exists : forall s r, BddOK s -> ref_ok s r -> exists phi, Den s r phi.
Proof.
  intros s r B Hok.
  exists (fun c => match semk s (S (nlevels s)) r c with Some 1%N => true | _ => false end).
  split; [exact Hok|]. intros c Hc.
  pose proof (rlevel_le s (bo_wf s B) r).
  destruct (semk_total s (bo_wf s B) (S (nlevels s)) r c Hok (proj2 (bchoice_ok s c B) Hc) ltac:(lia))
    as [v Ev].
  rewrite Ev. destruct (semk_code s B _ _ _ _ Ev) as [->| ->]; reflexivity.
Qed.

Lemma den_extends : forall s s' r phi, BddOK s -> extends s s' -> Den s r phi -> Den s' r phi.
Proof.
  intros s s' r phi B X [A D]. split; [apply (ext_ref_ok _ _ _ X A)|].
  intros c Hc. rewrite (ext_nlevels _ _ X), (semk_extends s s' (bo_wf s B) X _ _ c A). auto.
Qed.

Lemma den_term : forall s t b, term_val s t = Some (b2c b) -> Den s (RT t) (fun _ => b).
Proof. intros s t b E. split; [exists (b2c b); exact E|]. intros c _. rewrite semk_T. exact E. Qed.

Lemma den_const : forall s b t, BddOK s -> term_of s b = Some t -> Den s (RT t) (fun _ => b).
Proof. intros s b t B E. apply den_term. apply term_of_spec; [apply (bo_wf s B) | exact E]. Qed.

(** ** [view] *)

Lemma view_total : forall s r, BddOK s -> ref_ok s r -> exists v, view s r = Some v.
Proof.
  intros s [t|id] B Hok; simpl; [|eauto].
  destruct Hok as [v E]. rewrite E. destruct (bo_codes s B t v E) as [->| ->]; eauto.
Qed.

Lemma view_VI : forall s r, view s r = Some VI -> exists id, r = RN id.
Proof.
  intros s [t|id]; unfold view; [|eauto].
  destruct (term_val s t) as [[|[p|p|]]|]; discriminate.
Qed.

Lemma view_VT : forall s r b, view s r = Some (VT b) -> exists t, r = RT t /\ term_val s t = Some (b2c b).
Proof.
  intros s [t|id] b; unfold view; [|discriminate].
  destruct (term_val s t) as [[|[p|p|]]|] eqn:Et; try discriminate; intros E; inversion E; subst;
    (exists t; split; [reflexivity | exact Et]).
Qed.

Lemma view_den_T : forall s r b phi, Den s r phi -> view s r = Some (VT b) ->
  forall c, bchoice c -> phi c = b.
Proof.
  intros s r b phi [_ D] V c Hc. destruct (view_VT s r b V) as [t [-> E]].
  specialize (D c Hc). rewrite semk_T, E in D. apply b2c_inj. congruence.
Qed.

(** ** Independence of the levels above a reference *)

Definition indep (phi : (nat -> nat) -> bool) (L : nat) : Prop :=
  forall c c', bchoice c -> bchoice c' -> (forall l, L <= l -> c l = c' l) -> phi c = phi c'.

Definition cofn (phi : (nat -> nat) -> bool) (lvl i : nat) : (nat -> nat) -> bool :=
  fun c => phi (cupd c lvl i).

Lemma den_indep : forall s r phi, WF s -> Den s r phi -> indep phi (rlevel s r).
Proof.
  intros s r phi H [_ D] c c' Hc Hc' E. apply b2c_inj.
  pose proof (D c Hc) as A. pose proof (D c' Hc') as A'.
  rewrite (semk_ext s H _ r c c' E) in A. congruence.
Qed.

Lemma indep_mono : forall phi L L', indep phi L -> L' <= L -> indep phi L'.
Proof. intros phi L L' I Hle c c' Hc Hc' E. apply I; auto. intros l Hl. apply E. lia. Qed.

Lemma indep_cofn : forall phi L lvl i, indep phi L -> lvl <= L -> i < 2 -> indep (cofn phi lvl i) (S lvl).
Proof.
  intros phi L lvl i I Hle Hi c c' Hc Hc' E. unfold cofn.
  apply I; try (apply bchoice_upd; assumption).
  intros l Hl. unfold cupd. destruct (Nat.eqb_spec l lvl); [reflexivity|]. apply E. lia.
Qed.

(** setting a level to the value it already has changes nothing *)
Lemma indep_upd_self : forall phi L c lvl, indep phi L -> bchoice c ->
  cofn phi lvl (c lvl) c = phi c.
Proof.
  intros phi L c lvl I Hc. apply I; [apply bchoice_upd; auto | exact Hc|].
  intros l _. unfold cupd. destruct (Nat.eqb_spec l lvl); [subst; reflexivity | reflexivity].
Qed.

Lemma den_indep_le : forall s r phi L, WF s -> Den s r phi -> L <= rlevel s r -> indep phi L.
Proof. intros s r phi L H D Hle. apply (indep_mono phi _ L (den_indep s r phi H D) Hle). Qed.

(** a reference whose function ignores the levels above [L] (those numbered
    less than [L], nearer the root) sits at level [L] or deeper: otherwise all
    children of its node would mean the same and, by canonicity, be the same
    edge, which the reduction rule forbids *)
Lemma den_level : forall s r phi L, BddOK s -> Den s r phi -> L <= nlevels s ->
  indep phi L -> L <= rlevel s r.
Proof.
  intros s r phi L B [Hok D] HL I.
  pose proof (bo_wf s B) as H. pose proof (bdd_kary s B) as Hk.
  destruct (le_lt_dec L (rlevel s r)) as [Hle|Hlt]; [exact Hle|]. exfalso.
  destruct r as [t|id]; [simpl in Hlt; lia|].
  destruct Hok as [nd E]. rewrite (rlevel_node s id nd E) in Hlt.
  apply (reduced_kary s Hk _ (wf_reduced s H id nd E)).
  intros a b Ha Hb.
  destruct (In_nth_error _ _ Ha) as [i Hi]. destruct (In_nth_error _ _ Hb) as [j Hj].
  destruct (child_nth s H id nd i a E Hi) as [Oa La].
  destruct (child_nth s H id nd j b E Hj) as [Ob Lb].
  apply (child_edge_eq s id id nd nd a b H (proj1 Hk) E E Ha Hb).
  apply (canon_kary s H Hk _ _ Oa Ob). intros c Hc.
  apply (bchoice_ok s c B) in Hc.
  pose proof (child_index s H id nd i a E Hi) as Hi2.
  pose proof (child_index s H id nd j b E Hj) as Hj2.
  rewrite (bo_kind s B) in Hi2, Hj2. simpl in Hi2, Hj2.
  pose proof (child_sem s H id nd i a c E Hi) as Sa.
  pose proof (child_sem s H id nd j b c E Hj) as Sb.
  unfold semn in Sa, Sb. rewrite Sa, Sb.
  rewrite (D _ (bchoice_upd c (nlevel nd) i Hc Hi2)), (D _ (bchoice_upd c (nlevel nd) j Hc Hj2)).
  f_equal. f_equal. apply I; try (apply bchoice_upd; assumption).
  intros l Hl. unfold cupd. destruct (Nat.eqb_spec l (nlevel nd)); [lia | reflexivity].
Qed.

(** ** Shannon cofactors of a reference *)

Lemma bdd_children : forall s id nd, BddOK s -> find_node s id = Some nd ->
  exists a b, nchildren nd = [a; b].
Proof.
  intros s id nd B E. pose proof (wf_arity s (bo_wf s B) id nd E) as L.
  rewrite (bo_kind s B) in L. simpl in L.
  destruct (nchildren nd) as [|a [|b [|x r]]]; simpl in L; try discriminate. eauto.
Qed.

Lemma den_child : forall s id nd i e phi, BddOK s -> Den s (RN id) phi ->
  find_node s id = Some nd -> nth_error (nchildren nd) i = Some e ->
  Den s (eref e) (cofn phi (nlevel nd) i).
Proof.
  intros s id nd i e phi B [_ D] E He. pose proof (bo_wf s B) as H.
  split; [apply (child_nth s H id nd i e E He)|].
  intros c Hc. pose proof (child_sem s H id nd i e c E He) as S. unfold semn in S. rewrite S.
  pose proof (child_index s H id nd i e E He) as Hi. rewrite (bo_kind s B) in Hi. simpl in Hi.
  apply D. apply bchoice_upd; assumption.
Qed.

Lemma den_skip : forall s r phi lvl i, WF s -> Den s r phi -> lvl < rlevel s r -> i < 2 ->
  Den s r (cofn phi lvl i).
Proof.
  intros s r phi lvl i H D Hl Hi. apply (den_ext s r phi); [exact D|].
  intros c Hc. unfold cofn. apply (den_indep s r phi H D); [exact Hc | apply bchoice_upd; auto|].
  intros l Hle. unfold cupd. destruct (Nat.eqb_spec l lvl); [lia | reflexivity].
Qed.

(** what [cof2] returns for a node at or below the split level *)
Lemma cof2_ok : forall s id nd phi lvl, BddOK s -> Den s (RN id) phi ->
  find_node s id = Some nd -> lvl <= nlevel nd ->
  exists ft fe, cof2 (RN id) nd lvl = Some (ft, fe) /\
    Den s ft (cofn phi lvl 0) /\ Den s fe (cofn phi lvl 1) /\
    lvl < rlevel s ft /\ lvl < rlevel s fe.
Proof.
  intros s id nd phi lvl B D E Hle. pose proof (bo_wf s B) as H.
  unfold cof2. rewrite (wf_stored s H id nd E).
  destruct (Nat.eqb_spec (nlevel nd) lvl) as [Heq|Hne].
  - destruct (bdd_children s id nd B E) as [a [b Ech]]. rewrite Ech.
    assert (Ha : nth_error (nchildren nd) 0 = Some a) by (rewrite Ech; reflexivity).
    assert (Hb : nth_error (nchildren nd) 1 = Some b) by (rewrite Ech; reflexivity).
    exists (eref a), (eref b). subst lvl.
    split; [reflexivity|].
    split; [apply (den_child s id nd 0 a phi B D E Ha)|].
    split; [apply (den_child s id nd 1 b phi B D E Hb)|].
    split; [apply (child_nth s H id nd 0 a E Ha) | apply (child_nth s H id nd 1 b E Hb)].
  - assert (Hl : lvl < rlevel s (RN id)) by (rewrite (rlevel_node s id nd E); lia).
    exists (RN id), (RN id). split; [reflexivity|].
    split; [apply den_skip; auto|]. split; [apply den_skip; auto|]. auto.
Qed.

(** ** The node step shared by the three algorithms *)

Lemma node_step : forall s lvl t e P0 P1 s' h, BddOK s -> lvl < nlevels s ->
  Den s t P0 -> Den s e P1 -> indep P0 (S lvl) -> indep P1 (S lvl) ->
  mk_node s lvl [E t; E e] = (s', h) ->
  BddOK s' /\ extends s s' /\
  Den s' (eref h) (fun c => if Nat.eqb (c lvl) 0 then P0 c else P1 c).
Proof.
  intros s lvl t e P0 P1 s' h B Hl Dt De I0 I1 Hm.
  pose proof (bo_wf s B) as H. pose proof (bdd_kary s B) as Hk.
  assert (Lt : S lvl <= rlevel s t) by (apply (den_level s t P0); auto).
  assert (Le : S lvl <= rlevel s e) by (apply (den_level s e P1); auto).
  assert (Hch : children_ok s lvl [E t; E e]).
  { split; [rewrite (bo_kind s B); reflexivity|].
    intros x [<-|[<-|[]]]; simpl; (split; [|split; [lia | reflexivity]]);
      [apply (proj1 Dt) | apply (proj1 De)]. }
  destruct (mk_node_wf s lvl _ s' h H Hk Hl Hch Hm) as [W [X [O [T [Sold [Sh _]]]]]].
  split; [apply (bddok_extends s s' B X W)|]. split; [exact X|].
  split; [exact O|]. intros c Hc.
  pose proof (Hc lvl) as Hc2.
  destruct (c lvl) as [|[|k]] eqn:Ec; [| |lia].
  - rewrite (Sh c 0 (E t) Ec eq_refl). simpl. apply (proj2 Dt c Hc).
  - rewrite (Sh c 1 (E e) Ec eq_refl). simpl. apply (proj2 De c Hc).
Qed.

(** recombining the two cofactor results *)
Lemma shannon_pick : forall (c : nat -> nat) lvl (G : nat -> bool), bchoice c ->
  (if Nat.eqb (c lvl) 0 then G 0 else G 1) = G (c lvl).
Proof.
  intros c lvl G Hc. pose proof (Hc lvl). destruct (c lvl) as [|[|k]]; [reflexivity | reflexivity | lia].
Qed.

(** Fuel of the recursive calls.  [N - l] is the height of a reference at level
    [l] in a table of [N] levels, and the fuel bounds the height of the
    top-most operand.  The cofactors [a], [b] (, [c]) sit strictly below the
    split level [lvl], the level of that operand, so one unit less suffices. *)
Lemma fuel_below2 : forall N lvl n a b, N - lvl < S n -> lvl < N -> lvl < a -> lvl < b ->
  N - Nat.min a b < n.
Proof. intros. lia. Qed.

Lemma fuel_below3 : forall N lvl n a b c, N - lvl < S n -> lvl < N -> lvl < a -> lvl < b -> lvl < c ->
  N - Nat.min (Nat.min a b) c < n.
Proof. intros. lia. Qed.

(** [pw2 phi psi] / [pw3 phi psi theta] prove [forall c, bchoice c -> l c = r c]
    for [l], [r] built from [phi c], [psi c] (, [theta c]): every hypothesis
    [forall c, bchoice c -> _ = _] is used at [c] and the equation is checked on
    the truth table.  The facts go into the goal and the context is dropped,
    [congruence] being slow under quantified hypotheses. *)
Local Ltac pw_facts c Hc :=
  repeat match goal with
         | Hx : forall c', bchoice c' -> _ = _ |- _ => generalize (Hx c Hc); clear Hx
         end.
Local Ltac pw2 phi psi :=
  let c := fresh "c" in let Hc := fresh "Hc" in
  intros c Hc; cbv beta; pw_facts c Hc;
  clear - c; destruct (phi c); destruct (psi c); simpl; congruence.
Local Ltac pw3 phi psi theta :=
  let c := fresh "c" in let Hc := fresh "Hc" in
  intros c Hc; cbv beta; pw_facts c Hc;
  clear - c; destruct (phi c); destruct (psi c); destruct (theta c); simpl; congruence.

(** ** Every case of [terminal_bin] agrees with [eval_bop] *)

Section TB.
Variable gt : ref -> ref -> bool.

Lemma get_term_den : forall s b, BddOK s ->
  match get_term s b with TDone r => Den s r (fun _ => b) | _ => False end.
Proof.
  intros s b B. unfold get_term. destruct (term_of_total s b B) as [t E]. rewrite E.
  apply den_const; assumption.
Qed.

Lemma ref_eqb_true : forall a b, ref_eqb a b = true -> a = b.
Proof. intros a b. apply ref_eqb_eq. Qed.

Theorem tb_sound : forall s op f g vf vg phi psi, BddOK s ->
  Den s f phi -> Den s g psi -> view s f = Some vf -> view s g = Some vg ->
  match tb gt s op f g vf vg with
  | TDone r => Den s r (fun c => eval_bop op (phi c) (psi c))
  | TNot r => (r = f \/ r = g) /\
              exists rho, Den s r rho /\
                forall c, bchoice c -> eval_bop op (phi c) (psi c) = negb (rho c)
  | TBin o a b => o = op /\ vf = VI /\ vg = VI /\
                  ((a = f /\ b = g) \/
                   (a = g /\ b = f /\ forall x y, eval_bop op x y = eval_bop op y x))
  | TFail => False
  end.
Proof.
  intros s op f g vf vg phi psi B Hf Hg Vf Vg.
  assert (Ff : forall b, vf = VT b -> forall c, bchoice c -> phi c = b)
    by (intros b -> c Hc; apply (view_den_T s f b phi Hf Vf c Hc)).
  assert (Fg : forall b, vg = VT b -> forall c, bchoice c -> psi c = b)
    by (intros b -> c Hc; apply (view_den_T s g b psi Hg Vg c Hc)).
  assert (Fe : ref_eqb f g = true -> forall c, bchoice c -> phi c = psi c).
  { intros E c Hc. apply ref_eqb_true in E. subst g. apply (den_unique s f phi psi Hf Hg c Hc). }
  pose proof (get_term_den s false B) as Ht0. pose proof (get_term_den s true B) as Ht1.
  assert (Comm : forall o, In o [OAnd; OOr; ONand; ONor; OXor; OEquiv] ->
            forall x y, eval_bop o x y = eval_bop o y x).
  { intros o Ho [] []; simpl in Ho; repeat (destruct Ho as [<-|Ho]; [reflexivity|]); destruct Ho. }
  (* Every arm of [tb] is one of four things: an operand ([TDone f], [TDone g]),
     a constant ([get_term]), the negation of an operand ([TNot]), or the call
     itself with the operands possibly swapped ([TBin], only for two inner
     nodes).  For the first three the claim is an equation between functions
     of [phi c], [psi c], a 2x2 truth table once [Ff], [Fg], [Fe] have said what
     the views and [f = g] fix; for [TBin] a swap needs [Comm]. *)
  Local Ltac tbcase Ff Fg Fe phi psi Hf Hg Ht0 Ht1 Comm :=
    cbv beta iota;
    try specialize (Ff _ eq_refl); try specialize (Fg _ eq_refl); try specialize (Fe eq_refl);
    match goal with
    | |- match (if ?gt ?f ?g then _ else _) with _ => _ end =>      (* TBin, commutative *)
        destruct (gt f g); cbv beta iota;
        (split; [reflexivity|]; split; [reflexivity|]; split; [reflexivity|]);
        [ right; split; [reflexivity|]; split; [reflexivity|]; apply Comm; simpl; tauto
        | left; split; reflexivity ]
    | |- match get_term _ false with _ => _ end =>                   (* constant false *)
        destruct (get_term _ false); try contradiction;
        eapply den_ext; [exact Ht0 | pw2 phi psi]
    | |- match get_term _ true with _ => _ end =>                    (* constant true *)
        destruct (get_term _ true); try contradiction;
        eapply den_ext; [exact Ht1 | pw2 phi psi]
    | |- Den _ _ _ =>                                                (* TDone: an operand *)
        first [ eapply den_ext; [exact Hf | pw2 phi psi] | eapply den_ext; [exact Hg | pw2 phi psi] ]
    | |- (_ = _ \/ _) /\ _ =>                                        (* TNot: a negated operand *)
        first [ split; [left; reflexivity|]; exists phi; split; [exact Hf | pw2 phi psi]
              | split; [right; reflexivity|]; exists psi; split; [exact Hg | pw2 phi psi] ]
    | |- _ = _ /\ _ =>                                               (* TBin, not commutative *)
        split; [reflexivity|]; split; [reflexivity|]; split; [reflexivity|];
        left; split; reflexivity
    end.
  destruct op; unfold tb; destruct (ref_eqb f g) eqn:E;
    try (tbcase Ff Fg Fe phi psi Hf Hg Ht0 Ht1 Comm; fail);
    destruct vf as [|[]], vg as [|[]];
    tbcase Ff Fg Fe phi psi Hf Hg Ht0 Ht1 Comm.
Qed.

Theorem terminal_bin_sound : forall s op f g phi psi, BddOK s -> Den s f phi -> Den s g psi ->
  match terminal_bin gt s op f g with
  | TDone r => Den s r (fun c => eval_bop op (phi c) (psi c))
  | TNot r => (r = f \/ r = g) /\
              exists rho, Den s r rho /\
                forall c, bchoice c -> eval_bop op (phi c) (psi c) = negb (rho c)
  | TBin o a b => o = op /\ (exists idf, f = RN idf) /\ (exists idg, g = RN idg) /\
                  ((a = f /\ b = g) \/
                   (a = g /\ b = f /\ forall x y, eval_bop op x y = eval_bop op y x))
  | TFail => False
  end.
Proof.
  intros s op f g phi psi B Hf Hg. unfold terminal_bin.
  destruct (view_total s f B (proj1 Hf)) as [vf Vf]. destruct (view_total s g B (proj1 Hg)) as [vg Vg].
  rewrite Vf, Vg. pose proof (tb_sound s op f g vf vg phi psi B Hf Hg Vf Vg) as T.
  destruct (tb gt s op f g vf vg); auto.
  destruct T as [A [-> [-> D]]].
  split; [exact A|]. split; [apply (view_VI s f Vf)|]. split; [apply (view_VI s g Vg) | exact D].
Qed.

End TB.

(** ** Canonicity inside one table *)

(** two references of one table with the same value under every choice are equal *)
Lemma den_canon : forall s r1 r2 phi, BddOK s -> Den s r1 phi -> Den s r2 phi -> r1 = r2.
Proof.
  intros s r1 r2 phi B [O1 D1] [O2 D2].
  apply (canon_kary s (bo_wf s B) (bdd_kary s B) r1 r2 O1 O2).
  intros c Hc. apply (bchoice_ok s c B) in Hc. rewrite (D1 c Hc), (D2 c Hc). reflexivity.
Qed.

(** the cofactor of an existing function w.r.t. a level at or above its root exists *)
Lemma den_cof_exists : forall s r Phi lvl i, BddOK s -> Den s r Phi ->
  lvl <= rlevel s r -> lvl < nlevels s -> i < 2 -> exists r', Den s r' (cofn Phi lvl i).
Proof.
  intros s r Phi lvl i B D Hle Hl Hi. pose proof (bo_wf s B) as H.
  destruct r as [t|id].
  - exists (RT t). apply den_skip; auto.
  - destruct (proj1 D) as [nd En]. rewrite (rlevel_node s id nd En) in Hle.
    destruct (cof2_ok s id nd Phi lvl B D En Hle) as [ft [fe [_ [D0 [D1 _]]]]].
    destruct i as [|[|k]]; [exists ft; exact D0 | exists fe; exact D1 | lia].
Qed.

(** if the function to be built already has a reference, [mk_node] returns it
    and leaves the table alone *)
Lemma mk_node_stable : forall s lvl t e P0 P1 s' h r0, BddOK s -> lvl < nlevels s ->
  Den s t P0 -> Den s e P1 -> indep P0 (S lvl) -> indep P1 (S lvl) ->
  mk_node s lvl [E t; E e] = (s', h) ->
  Den s r0 (fun c => if Nat.eqb (c lvl) 0 then P0 c else P1 c) ->
  s' = s /\ eref h = r0.
Proof.
  intros s lvl t e P0 P1 s' h r0 B Hl Dt De I0 I1 Hm D0.
  destruct (node_step s lvl t e P0 P1 s' h B Hl Dt De I0 I1 Hm) as [B' [X Dh]].
  assert (Eh : eref h = r0) by (apply (den_canon s' _ _ _ B' Dh (den_extends s s' _ _ B X D0))).
  split; [|exact Eh].
  unfold mk_node in Hm. destruct (all_equal [E t; E e]); [inversion Hm; reflexivity|].
  unfold get_or_insert in Hm. destruct (find_dup s lvl [E t; E e]); inversion Hm; [reflexivity|].
  exfalso. subst h. simpl in Eh. subst r0. destruct (proj1 D0) as [nd En].
  rewrite fresh_id_free in En. discriminate.
Qed.

Lemma op_code_inj : forall o o', op_code o = op_code o' -> o = o'.
Proof. intros [] [] E; simpl in E; try discriminate; reflexivity. Qed.

(** ** What the apply proofs of the kinds share

    A kind has references [R] ([ref], [edge]) that denote functions ([D]) in
    tables satisfying [OK], a level [lev], a node constructor [mk] whose
    result is read through [out], and cache entries justified by [EO].  The
    lemmas of this section use the facts listed as hypotheses and nothing
    else: no tag, no reduction rule, no interpreter. *)
Section Shared.
Variables R M : Type.
Variable OK : snap -> Prop.
Variable D : snap -> R -> ((nat -> nat) -> bool) -> Prop.
Variable lev : snap -> R -> nat.
Variable mk : snap -> nat -> R -> R -> snap * M.
Variable out : M -> R.
Hypothesis D_ext : forall s r phi phi', D s r phi ->
  (forall c, bchoice c -> phi c = phi' c) -> D s r phi'.
Hypothesis D_extends : forall s s' r phi, OK s -> extends s s' -> D s r phi -> D s' r phi.
Hypothesis D_canon : forall s r1 r2 phi, OK s -> D s r1 phi -> D s r2 phi -> r1 = r2.
Hypothesis D_level : forall s r phi L, OK s -> D s r phi -> L <= nlevels s ->
  indep phi L -> L <= lev s r.
Hypothesis D_cof : forall s r Phi lvl i, OK s -> D s r Phi ->
  lvl <= lev s r -> lvl < nlevels s -> i < 2 -> exists r', D s r' (cofn Phi lvl i).
Hypothesis mk_step : forall s lvl t e P0 P1 s' h, OK s -> lvl < nlevels s ->
  D s t P0 -> D s e P1 -> indep P0 (S lvl) -> indep P1 (S lvl) ->
  mk s lvl t e = (s', h) ->
  OK s' /\ extends s s' /\
  D s' (out h) (fun c => if Nat.eqb (c lvl) 0 then P0 c else P1 c).
Hypothesis mk_stable : forall s lvl t e P0 P1 s' h r0, OK s -> lvl < nlevels s ->
  D s t P0 -> D s e P1 -> indep P0 (S lvl) -> indep P1 (S lvl) ->
  mk s lvl t e = (s', h) ->
  D s r0 (fun c => if Nat.eqb (c lvl) 0 then P0 c else P1 c) ->
  s' = s /\ out h = r0.

Section SharedCache.
Variable C : Type.
Variable cget : C -> N -> list R -> option R.
Variable cadd : C -> N -> list R -> R -> C.
Hypothesis Hlossy : forall c k a r k' a' r', cget (cadd c k a r) k' a' = Some r' ->
  (k' = k /\ a' = a /\ r' = r) \/ cget c k' a' = Some r'.
Variable EO : snap -> N -> list R -> R -> Prop.
Hypothesis EO_extends : forall s s' code args r, OK s -> extends s s' ->
  EO s code args r -> EO s' code args r.

Definition gcache_ok (s : snap) (c : C) : Prop :=
  forall code args r, cget c code args = Some r -> EO s code args r.

Lemma gcacheok_extends : forall s s' c, OK s -> extends s s' -> gcache_ok s c -> gcache_ok s' c.
Proof. intros s s' c B X O code args r E. eapply EO_extends; eauto. Qed.

Lemma gcacheok_add : forall s c code args r, gcache_ok s c -> EO s code args r ->
  gcache_ok s (cadd c code args r).
Proof.
  intros s c code args r O Hn code' args' r' E.
  destruct (Hlossy _ _ _ _ _ _ _ E) as [[-> [-> ->]]|E']; [exact Hn | apply (O _ _ _ E')].
Qed.

Definition gresult_ok (s : snap) (c : C) (res : option (snap * C * R))
  (Phi : (nat -> nat) -> bool) : Prop :=
  exists s' c' r, res = Some (s', c', r) /\
    OK s' /\ extends s s' /\ gcache_ok s' c' /\ D s' r Phi /\
    (forall r0, D s r0 Phi -> s' = s /\ r = r0).

Lemma gresult_ok_ext : forall s c res Phi Phi', gresult_ok s c res Phi ->
  (forall c0, bchoice c0 -> Phi c0 = Phi' c0) -> gresult_ok s c res Phi'.
Proof.
  intros s c res Phi Phi' [s' [c' [r [E [B [X [O [Dr S]]]]]]]] Hp.
  exists s', c', r. split; [exact E|]. split; [exact B|]. split; [exact X|]. split; [exact O|].
  split; [apply (D_ext s' r Phi Phi' Dr Hp)|].
  intros r0 D0. apply S. apply (D_ext s r0 Phi' Phi D0). intros c0 Hc. symmetry. apply Hp. exact Hc.
Qed.

Lemma gresult_ok_here : forall s c r Phi, OK s -> gcache_ok s c -> D s r Phi ->
  gresult_ok s c (Some (s, c, r)) Phi.
Proof.
  intros s c r Phi B O Dr. exists s, c, r.
  split; [reflexivity|]. split; [exact B|]. split; [apply extends_refl|]. split; [exact O|].
  split; [exact Dr|]. intros r0 D0. split; [reflexivity | apply (D_canon s r r0 Phi B Dr D0)].
Qed.

(** The recursion step of every apply algorithm: [Phi], which ignores the
    levels above [lvl], is built at [lvl] from the results for its two
    cofactors, the second computed in the table and cache the first call left
    behind; [code], [args] is the cache entry written for it. *)
Lemma gshannon_step : forall s c lvl Phi code args res1
    (rec2 : snap -> C -> option (snap * C * R)),
  OK s -> lvl < nlevels s -> indep Phi lvl ->
  gresult_ok s c res1 (cofn Phi lvl 0) ->
  (forall s1 c1, OK s1 -> extends s s1 -> gcache_ok s1 c1 ->
     gresult_ok s1 c1 (rec2 s1 c1) (cofn Phi lvl 1)) ->
  (forall s3 r, extends s s3 -> D s3 r Phi -> EO s3 code args r) ->
  gresult_ok s c
    match res1 with
    | None => None
    | Some (s1, c1, t) =>
      match rec2 s1 c1 with
      | None => None
      | Some (s2, c2, e) =>
        let '(s3, h) := mk s2 lvl t e in
        Some (s3, cadd c2 code args (out h), out h)
      end
    end Phi.
Proof.
  intros s c lvl Phi code args res1 rec2 B Hl IP [s1 [c1 [t [-> [B1 [X1 [O1 [D1 S1]]]]]]]] R2 Hentry.
  destruct (R2 s1 c1 B1 X1 O1) as [s2 [c2 [e [-> [B2 [X2 [O2 [D2 S2]]]]]]]].
  destruct (mk s2 lvl t e) as [s3 h] eqn:Em.
  pose proof (D_extends s1 s2 _ _ B1 X2 D1) as D1'.
  assert (II : forall i, i < 2 -> indep (cofn Phi lvl i) (S lvl))
    by (intros i Hi; apply (indep_cofn Phi lvl lvl i IP (le_n _) Hi)).
  assert (Hl2 : lvl < nlevels s2) by (rewrite (ext_nlevels _ _ X2), (ext_nlevels _ _ X1); exact Hl).
  destruct (mk_step s2 lvl t e _ _ s3 h B2 Hl2 D1' D2 (II 0 ltac:(lia)) (II 1 ltac:(lia)) Em)
    as [B3 [X3 Dh]].
  assert (X03 : extends s s3) by (eapply extends_trans; [|exact X3]; eapply extends_trans; eauto).
  assert (Heq : forall c0, bchoice c0 ->
            (if Nat.eqb (c0 lvl) 0 then cofn Phi lvl 0 c0 else cofn Phi lvl 1 c0) = Phi c0).
  { intros c0 Hc. rewrite (shannon_pick c0 lvl (fun i => cofn Phi lvl i c0) Hc).
    apply (indep_upd_self Phi lvl c0 lvl IP Hc). }
  pose proof (D_ext _ _ _ _ Dh Heq) as Dres.
  exists s3, (cadd c2 code args (out h)), (out h).
  split; [reflexivity|]. split; [exact B3|]. split; [exact X03|].
  split; [apply gcacheok_add; [apply (gcacheok_extends s2 s3 c2 B2 X3 O2) | apply (Hentry s3 _ X03 Dres)]|].
  split; [exact Dres|]. intros r0 D0.
  (* a reference for [Phi] in [s] has cofactor references in [s]: both calls
     and [mk] found what was there *)
  assert (L0 : lvl <= lev s r0) by (apply (D_level s r0 _ lvl B D0 ltac:(lia) IP)).
  destruct (D_cof s r0 _ lvl 0 B D0 L0 Hl ltac:(lia)) as [q0 Dq0].
  destruct (D_cof s r0 _ lvl 1 B D0 L0 Hl ltac:(lia)) as [q1 Dq1].
  destruct (S1 q0 Dq0) as [Es1 Et]. subst s1 t.
  destruct (S2 q1 Dq1) as [Es2 Ee]. subst s2 e.
  apply (mk_stable s lvl q0 q1 _ _ s3 h r0 B Hl D1' D2 (II 0 ltac:(lia)) (II 1 ltac:(lia)) Em).
  apply (D_ext s r0 _ _ D0). intros c0 Hc. symmetry. apply Heq. exact Hc.
Qed.

End SharedCache.

Lemma grerun_same : forall C1 C2 cget1 cget2 EO1 EO2 s (c1 : C1) res1 Phi s1 c1' r1 s2,
  gresult_ok C1 cget1 EO1 s c1 res1 Phi -> res1 = Some (s1, c1', r1) -> extends s1 s2 ->
  extends s s2 /\
  forall (c2 : C2) res2, gresult_ok C2 cget2 EO2 s2 c2 res2 Phi ->
    exists c2', res2 = Some (s2, c2', r1).
Proof.
  intros C1 C2 cget1 cget2 EO1 EO2 s c1 res1 Phi s1 c1' r1 s2
    [sa [ca [ra [Ea [Ba [Xa [_ [Da _]]]]]]]] E1 X.
  rewrite E1 in Ea. inversion Ea; subst sa ca ra.
  split; [apply (extends_trans s s1 s2 Xa X)|].
  intros c2 res2 [sb [cb [rb [Eb [_ [_ [_ [_ Sb]]]]]]]].
  destruct (Sb r1 (D_extends s1 s2 _ _ Ba X Da)) as [-> ->]. exists cb. exact Eb.
Qed.

End Shared.

(** ** Caches *)

Section CacheSec.
Variable gt : ref -> ref -> bool.
Variable C : Type.
Variable cget : C -> N -> list ref -> option ref.
Variable cadd : C -> N -> list ref -> ref -> C.

(** the only thing assumed about the cache: what it serves after an insertion
    is the inserted entry or something it served before (entries may be lost
    at any time, never invented or mixed up) *)
Definition lossy : Prop :=
  forall c k a r k' a' r', cget (cadd c k a r) k' a' = Some r' ->
    (k' = k /\ a' = a /\ r' = r) \/ cget c k' a' = Some r'.

Hypothesis Hlossy : lossy.

(** an entry is correct in table [s] *)
Definition entry_ok (s : snap) (code : N) (args : list ref) (r : ref) : Prop :=
  match args with
  | [f] => code = code_not ->
      exists phi, Den s f phi /\ Den s r (fun c => negb (phi c))
  | [f; g] => forall o, code = op_code o ->
      exists phi psi, Den s f phi /\ Den s g psi /\
                      Den s r (fun c => eval_bop o (phi c) (psi c))
  | [f; g; h] => code = code_ite ->
      exists phi psi theta, Den s f phi /\ Den s g psi /\ Den s h theta /\
                            Den s r (fun c => if phi c then psi c else theta c)
  | _ => True
  end.

Definition CacheOK (s : snap) (c : C) : Prop :=
  forall code args r, cget c code args = Some r -> entry_ok s code args r.

Lemma entry_ok_extends : forall s s' code args r, BddOK s -> extends s s' ->
  entry_ok s code args r -> entry_ok s' code args r.
Proof.
  intros s s' code args r B X. unfold entry_ok.
  destruct args as [|f [|g [|h [|x rest]]]]; auto.
  - intros Hx Hc. destruct (Hx Hc) as [phi [A D]]. exists phi.
    split; eapply den_extends; eauto.
  - intros Hx o Hc. destruct (Hx o Hc) as [phi [psi [A [A' D]]]]. exists phi, psi.
    repeat split; eapply den_extends; eauto.
  - intros Hx Hc. destruct (Hx Hc) as [phi [psi [theta [A [A' [A'' D]]]]]]. exists phi, psi, theta.
    repeat split; eapply den_extends; eauto.
Qed.

Lemma cacheok_extends : forall s s' c, BddOK s -> extends s s' -> CacheOK s c -> CacheOK s' c.
Proof. exact (gcacheok_extends ref BddOK C cget entry_ok entry_ok_extends). Qed.

Lemma cacheok_add : forall s c code args r, CacheOK s c -> entry_ok s code args r ->
  CacheOK s (cadd c code args r).
Proof. exact (gcacheok_add ref C cget cadd Hlossy entry_ok). Qed.

Definition result_ok (s : snap) (c : C) (res : option (snap * C * ref))
  (Phi : (nat -> nat) -> bool) : Prop :=
  exists s' c' r, res = Some (s', c', r) /\
    BddOK s' /\ extends s s' /\ CacheOK s' c' /\ Den s' r Phi /\
    (* if the result function already has a reference, that reference is
       returned and the table is unchanged *)
    (forall r0, Den s r0 Phi -> s' = s /\ r = r0).

Lemma result_ok_ext : forall s c res Phi Phi', result_ok s c res Phi ->
  (forall c0, bchoice c0 -> Phi c0 = Phi' c0) -> result_ok s c res Phi'.
Proof. exact (gresult_ok_ext ref BddOK Den den_ext C cget entry_ok). Qed.

Lemma result_ok_here : forall s c r Phi, BddOK s -> CacheOK s c -> Den s r Phi ->
  result_ok s c (Some (s, c, r)) Phi.
Proof. exact (gresult_ok_here ref BddOK Den den_canon C cget entry_ok). Qed.

Definition shannon_step :=
  gshannon_step ref edge BddOK Den rlevel (fun s lvl t e => mk_node s lvl [Build.E t; Build.E e]) eref
    den_ext den_extends den_level den_cof_exists node_step mk_node_stable
    C cget cadd Hlossy entry_ok entry_ok_extends.

(** ** [apply_not] *)

Lemma apply_not_S : forall n s c f,
  apply_not C cget cadd (S n) s c f =
  match f with
  | RT _ =>
    match view s f with
    | Some (VT b) =>
      match term_of s (negb b) with Some t => Some (s, c, RT t) | None => None end
    | _ => None
    end
  | RN id =>
    match find_node s id with
    | None => None
    | Some nd =>
      match cget c code_not [f] with
      | Some h => Some (s, c, h)
      | None =>
        match nchildren nd with
        | [ft; fe] =>
          match apply_not C cget cadd n s c (eref ft) with
          | None => None
          | Some (s1, c1, t) =>
            match apply_not C cget cadd n s1 c1 (eref fe) with
            | None => None
            | Some (s2, c2, e) =>
              let '(s3, h) := mk_node s2 (nstored nd) [E t; E e] in
              Some (s3, cadd c2 code_not [f] (eref h), eref h)
            end
          end
        | _ => None
        end
      end
    end
  end.
Proof. reflexivity. Qed.

Theorem apply_not_ok : forall fuel s c f phi,
  BddOK s -> CacheOK s c -> Den s f phi -> nlevels s - rlevel s f < fuel ->
  result_ok s c (apply_not C cget cadd fuel s c f) (fun c0 => negb (phi c0)).
Proof.
  induction fuel as [|n IH]; intros s c f phi B O D Hf; [lia|].
  pose proof (bo_wf s B) as H.
  rewrite apply_not_S. destruct f as [t|id].
  - destruct (view_total s (RT t) B (proj1 D)) as [v V]. rewrite V.
    destruct v as [|b]; [destruct (view_VI s _ V) as [i Hi]; discriminate|].
    destruct (term_of_total s (negb b) B) as [t' Et]. rewrite Et.
    apply result_ok_here; auto.
    apply (den_ext s (RT t') (fun _ => negb b)); [apply den_const; auto|].
    intros c0 Hc. rewrite (view_den_T s (RT t) b phi D V c0 Hc). reflexivity.
  - destruct (proj1 D) as [nd E]. rewrite E.
    rewrite (rlevel_node s id nd E) in Hf. pose proof (wf_level s H id nd E) as Hlv.
    destruct (cget c code_not [RN id]) as [h|] eqn:Eg.
    + (* cache hit *)
      destruct (O _ _ _ Eg eq_refl) as [phi' [D' Dh]].
      apply result_ok_here; auto.
      apply (den_ext s h _ _ Dh). intros c0 Hc.
      rewrite (den_unique s (RN id) phi' phi D' D c0 Hc). reflexivity.
    + destruct (bdd_children s id nd B E) as [a [b Ech]]. rewrite Ech, (wf_stored s H id nd E).
      assert (Ha : nth_error (nchildren nd) 0 = Some a) by (rewrite Ech; reflexivity).
      assert (Hb : nth_error (nchildren nd) 1 = Some b) by (rewrite Ech; reflexivity).
      pose proof (den_child s id nd 0 a phi B D E Ha) as Da.
      pose proof (den_child s id nd 1 b phi B D E Hb) as Db.
      destruct (child_nth s H id nd 0 a E Ha) as [Oa La].
      destruct (child_nth s H id nd 1 b E Hb) as [Ob Lb].
      apply (shannon_step s c (nlevel nd) (fun c0 => negb (phi c0)) code_not [RN id] _
               (fun s1 c1 => apply_not C cget cadd n s1 c1 (eref b))); [exact B | exact Hlv | | | |].
      * intros x y Hx Hy Exy. f_equal.
        apply (den_indep_le s (RN id) phi (nlevel nd) H D);
          [rewrite (rlevel_node s id nd E); apply le_n | assumption..].
      * apply (IH s c (eref a) _ B O Da). lia.
      * intros s1 c1 B1 X1 O1. apply (IH s1 c1 (eref b) _ B1 O1 (den_extends s s1 _ _ B X1 Db)).
        rewrite (ext_nlevels _ _ X1), (ext_rlevel _ _ _ X1 Ob). lia.
      * intros s3 r X03 Dr _. exists phi. split; [apply (den_extends s s3 _ _ B X03 D) | exact Dr].
Qed.

(** ** [apply_bin] *)

Lemma apply_bin_S : forall n s c op f g,
  apply_bin gt C cget cadd (S n) s c op f g =
  match terminal_bin gt s op f g with
  | TFail => None
  | TDone h => Some (s, c, h)
  | TNot r => apply_not C cget cadd (S n) s c r
  | TBin o a b =>
    match cget c (op_code o) [a; b] with
    | Some h => Some (s, c, h)
    | None =>
      match inner s f, inner s g with
      | Some fnode, Some gnode =>
        let lvl := Nat.min (nstored fnode) (nstored gnode) in
        match cof2 f fnode lvl, cof2 g gnode lvl with
        | Some (ft, fe), Some (gt', ge) =>
          match apply_bin gt C cget cadd n s c op ft gt' with
          | None => None
          | Some (s1, c1, t) =>
            match apply_bin gt C cget cadd n s1 c1 op fe ge with
            | None => None
            | Some (s2, c2, e) =>
              let '(s3, h) := mk_node s2 lvl [E t; E e] in
              Some (s3, cadd c2 (op_code o) [a; b] (eref h), eref h)
            end
          end
        | _, _ => None
        end
      | _, _ => None
      end
    end
  end.
Proof. reflexivity. Qed.

Theorem apply_bin_ok : forall op fuel s c f g phi psi,
  BddOK s -> CacheOK s c -> Den s f phi -> Den s g psi ->
  nlevels s - Nat.min (rlevel s f) (rlevel s g) < fuel ->
  result_ok s c (apply_bin gt C cget cadd fuel s c op f g)
            (fun c0 => eval_bop op (phi c0) (psi c0)).
Proof.
  intros op. induction fuel as [|n IH]; intros s c f g phi psi B O Df Dg Hfuel; [lia|].
  pose proof (bo_wf s B) as H.
  rewrite apply_bin_S.
  pose proof (terminal_bin_sound gt s op f g phi psi B Df Dg) as T.
  destruct (terminal_bin gt s op f g) as [r|r|o a b|] eqn:Etb; [| | |contradiction].
  - apply result_ok_here; auto.
  - destruct T as [Hr [rho [Dr Hrho]]].
    assert (Hfr : nlevels s - rlevel s r < S n) by (destruct Hr as [->| ->]; lia).
    apply (result_ok_ext s c _ (fun c0 => negb (rho c0))).
    + apply (apply_not_ok (S n) s c r rho B O Dr Hfr).
    + intros c0 Hc. symmetry. apply Hrho. exact Hc.
  - destruct T as [-> [[idf ->] [[idg ->] Hab]]].
    destruct (proj1 Df) as [fnd Ef]. destruct (proj1 Dg) as [gnd Eg].
    rewrite (rlevel_node s idf fnd Ef), (rlevel_node s idg gnd Eg) in Hfuel.
    pose proof (wf_level s H idf fnd Ef) as Hlf. pose proof (wf_level s H idg gnd Eg) as Hlg.
    destruct (cget c (op_code op) [a; b]) as [h|] eqn:Ec.
    + (* cache hit *)
      destruct (O _ _ _ Ec op eq_refl) as [pa [pb [Da [Db Dh]]]].
      apply result_ok_here; auto. apply (den_ext s h _ _ Dh). intros c0 Hc.
      destruct Hab as [[-> ->]|[-> [-> Hcomm]]].
      * rewrite (den_unique s _ pa phi Da Df c0 Hc), (den_unique s _ pb psi Db Dg c0 Hc). reflexivity.
      * rewrite (den_unique s _ pa psi Da Dg c0 Hc), (den_unique s _ pb phi Db Df c0 Hc). apply Hcomm.
    + simpl inner. rewrite Ef, Eg.
      rewrite (wf_stored s H idf fnd Ef), (wf_stored s H idg gnd Eg).
      set (lvl := Nat.min (nlevel fnd) (nlevel gnd)) in *. cbv zeta.
      assert (Hmf : lvl <= nlevel fnd) by apply Nat.le_min_l.
      assert (Hmg : lvl <= nlevel gnd) by apply Nat.le_min_r.
      assert (Hlvl : lvl < nlevels s) by apply (Nat.le_lt_trans _ _ _ Hmf Hlf).
      destruct (cof2_ok s idf fnd phi lvl B Df Ef Hmf) as [ft [fe [Ecf [Dft [Dfe [Lft Lfe]]]]]].
      destruct (cof2_ok s idg gnd psi lvl B Dg Eg Hmg) as [gt' [ge [Ecg [Dgt [Dge [Lgt Lge]]]]]].
      rewrite Ecf, Ecg.
      rewrite <- (rlevel_node s idf fnd Ef) in Hmf. rewrite <- (rlevel_node s idg gnd Eg) in Hmg.
      apply (shannon_step s c lvl (fun c0 => eval_bop op (phi c0) (psi c0)) (op_code op) [a; b] _
               (fun s1 c1 => apply_bin gt C cget cadd n s1 c1 op fe ge)); [exact B | exact Hlvl | | | |].
      * intros x y Hx Hy Exy. f_equal.
        -- apply (den_indep_le s _ phi lvl H Df Hmf); assumption.
        -- apply (den_indep_le s _ psi lvl H Dg Hmg); assumption.
      * apply (IH s c ft gt' _ _ B O Dft Dgt). apply (fuel_below2 _ lvl _ _ _ Hfuel Hlvl Lft Lgt).
      * intros s1 c1 B1 X1 O1.
        apply (IH s1 c1 fe ge _ _ B1 O1 (den_extends s s1 _ _ B X1 Dfe) (den_extends s s1 _ _ B X1 Dge)).
        rewrite (ext_nlevels _ _ X1), (ext_rlevel _ _ _ X1 (proj1 Dfe)), (ext_rlevel _ _ _ X1 (proj1 Dge)).
        apply (fuel_below2 _ lvl _ _ _ Hfuel Hlvl Lfe Lge).
      * intros s3 r X03 Dres o Ho. apply op_code_inj in Ho. subst o.
        pose proof (den_extends s s3 _ _ B X03 Df) as Df3.
        pose proof (den_extends s s3 _ _ B X03 Dg) as Dg3.
        destruct Hab as [[-> ->]|[-> [-> Hcomm]]].
        -- exists phi, psi. auto.
        -- exists psi, phi. split; [exact Dg3|]. split; [exact Df3|].
           apply (den_ext _ _ _ _ Dres). intros c0 _. apply Hcomm.
Qed.

(** ** [apply_ite] *)

Lemma apply_ite_S : forall n s c f g h,
  apply_ite gt C cget cadd (S n) s c f g h =
    if ref_eqb g h then Some (s, c, g)
    else if ref_eqb f g then apply_bin gt C cget cadd (S n) s c OOr f h
    else if ref_eqb f h then apply_bin gt C cget cadd (S n) s c OAnd f g
    else
      match view s f with
      | None => None
      | Some (VT b) => Some (s, c, if b then g else h)
      | Some VI =>
        match view s g, view s h with
        | Some (VT true), Some VI => apply_bin gt C cget cadd (S n) s c OOr f h
        | Some (VT false), Some VI => apply_bin gt C cget cadd (S n) s c OImpStrict f h
        | Some VI, Some (VT true) => apply_bin gt C cget cadd (S n) s c OImp f g
        | Some VI, Some (VT false) => apply_bin gt C cget cadd (S n) s c OAnd f g
        | Some (VT false), Some (VT _) => apply_not C cget cadd (S n) s c f
        | Some (VT true), Some (VT _) => Some (s, c, f)
        | Some VI, Some VI =>
          match cget c code_ite [f; g; h] with
          | Some r => Some (s, c, r)
          | None =>
            match inner s f, inner s g, inner s h with
            | Some fnode, Some gnode, Some hnode =>
              let lvl := Nat.min (Nat.min (nstored fnode) (nstored gnode)) (nstored hnode) in
              match cof2 f fnode lvl, cof2 g gnode lvl, cof2 h hnode lvl with
              | Some (ft, fe), Some (gt', ge), Some (ht, he) =>
                match apply_ite gt C cget cadd n s c ft gt' ht with
                | None => None
                | Some (s1, c1, t) =>
                  match apply_ite gt C cget cadd n s1 c1 fe ge he with
                  | None => None
                  | Some (s2, c2, e) =>
                    let '(s3, r) := mk_node s2 lvl [E t; E e] in
                    Some (s3, cadd c2 code_ite [f; g; h] (eref r), eref r)
                  end
                end
              | _, _, _ => None
              end
            | _, _, _ => None
            end
          end
        | _, _ => None
        end
      end.
Proof. reflexivity. Qed.

Theorem apply_ite_ok : forall fuel s c f g h phi psi theta,
  BddOK s -> CacheOK s c -> Den s f phi -> Den s g psi -> Den s h theta ->
  nlevels s - Nat.min (Nat.min (rlevel s f) (rlevel s g)) (rlevel s h) < fuel ->
  result_ok s c (apply_ite gt C cget cadd fuel s c f g h)
            (fun c0 => if phi c0 then psi c0 else theta c0).
Proof.
  induction fuel as [|n IH]; intros s c f g h phi psi theta B O Df Dg Dh Hfuel; [lia|].
  pose proof (bo_wf s B) as H.
  assert (Hfg : nlevels s - Nat.min (rlevel s f) (rlevel s g) < S n) by lia.
  assert (Hfh : nlevels s - Nat.min (rlevel s f) (rlevel s h) < S n) by lia.
  rewrite apply_ite_S.
  destruct (ref_eqb g h) eqn:Egh.
  { apply ref_eqb_true in Egh. subst h.
    pose proof (den_unique s g psi theta Dg Dh) as U.
    apply result_ok_here; auto. apply (den_ext s g psi); [exact Dg|]. pw3 phi psi theta. }
  destruct (ref_eqb f g) eqn:Efg.
  { apply ref_eqb_true in Efg. subst g.
    pose proof (den_unique s f phi psi Df Dg) as U.
    apply (result_ok_ext s c _ (fun c0 => eval_bop OOr (phi c0) (theta c0))).
    - apply (apply_bin_ok OOr (S n) s c f h phi theta B O Df Dh Hfh).
    - pw3 phi psi theta. }
  destruct (ref_eqb f h) eqn:Efh.
  { apply ref_eqb_true in Efh. subst h.
    pose proof (den_unique s f phi theta Df Dh) as U.
    apply (result_ok_ext s c _ (fun c0 => eval_bop OAnd (phi c0) (psi c0))).
    - apply (apply_bin_ok OAnd (S n) s c f g phi psi B O Df Dg Hfg).
    - pw3 phi psi theta. }
  destruct (view_total s f B (proj1 Df)) as [vf Vf].
  destruct (view_total s g B (proj1 Dg)) as [vg Vg].
  destruct (view_total s h B (proj1 Dh)) as [vh Vh].
  rewrite Vf. destruct vf as [|bf].
  2:{ pose proof (view_den_T s f bf phi Df Vf) as U.
      apply result_ok_here; auto. destruct bf.
      - apply (den_ext s g psi); [exact Dg|]. pw3 phi psi theta.
      - apply (den_ext s h theta); [exact Dh|]. pw3 phi psi theta. }
  rewrite Vg, Vh. destruct vg as [|[]], vh as [|[]].
  - (* all three inner *)
    destruct (view_VI s f Vf) as [idf ->]. destruct (view_VI s g Vg) as [idg ->].
    destruct (view_VI s h Vh) as [idh ->].
    destruct (proj1 Df) as [fnd Ef]. destruct (proj1 Dg) as [gnd Eg]. destruct (proj1 Dh) as [hnd Eh].
    rewrite (rlevel_node s idf fnd Ef), (rlevel_node s idg gnd Eg), (rlevel_node s idh hnd Eh) in Hfuel.
    pose proof (wf_level s H idf fnd Ef) as Hlf. pose proof (wf_level s H idg gnd Eg) as Hlg.
    pose proof (wf_level s H idh hnd Eh) as Hlh.
    destruct (cget c code_ite [RN idf; RN idg; RN idh]) as [r|] eqn:Ec.
    + destruct (O _ _ _ Ec eq_refl) as [pa [pb [pc [Da [Db [Dc Dr]]]]]].
      apply result_ok_here; auto. apply (den_ext s r _ _ Dr). intros c0 Hc.
      rewrite (den_unique s _ pa phi Da Df c0 Hc), (den_unique s _ pb psi Db Dg c0 Hc),
              (den_unique s _ pc theta Dc Dh c0 Hc). reflexivity.
    + simpl inner. rewrite Ef, Eg, Eh.
      rewrite (wf_stored s H idf fnd Ef), (wf_stored s H idg gnd Eg), (wf_stored s H idh hnd Eh).
      set (lvl := Nat.min (Nat.min (nlevel fnd) (nlevel gnd)) (nlevel hnd)) in *. cbv zeta.
      assert (Hmf : lvl <= nlevel fnd) by apply (Nat.le_trans _ _ _ (Nat.le_min_l _ _) (Nat.le_min_l _ _)).
      assert (Hmg : lvl <= nlevel gnd) by apply (Nat.le_trans _ _ _ (Nat.le_min_l _ _) (Nat.le_min_r _ _)).
      assert (Hmh : lvl <= nlevel hnd) by apply Nat.le_min_r.
      assert (Hlvl : lvl < nlevels s) by apply (Nat.le_lt_trans _ _ _ Hmh Hlh).
      destruct (cof2_ok s idf fnd phi lvl B Df Ef Hmf) as [ft [fe [Ecf [Dft [Dfe [Lft Lfe]]]]]].
      destruct (cof2_ok s idg gnd psi lvl B Dg Eg Hmg) as [gt' [ge [Ecg [Dgt [Dge [Lgt Lge]]]]]].
      destruct (cof2_ok s idh hnd theta lvl B Dh Eh Hmh) as [ht [he [Ech [Dht [Dhe [Lht Lhe]]]]]].
      rewrite Ecf, Ecg, Ech.
      rewrite <- (rlevel_node s idf fnd Ef) in Hmf. rewrite <- (rlevel_node s idg gnd Eg) in Hmg.
      rewrite <- (rlevel_node s idh hnd Eh) in Hmh.
      apply (shannon_step s c lvl (fun c0 => if phi c0 then psi c0 else theta c0) code_ite
               [RN idf; RN idg; RN idh] _
               (fun s1 c1 => apply_ite gt C cget cadd n s1 c1 fe ge he)); [exact B | exact Hlvl | | | |].
      * intros x y Hx Hy Exy.
        rewrite (den_indep_le s _ phi lvl H Df Hmf x y Hx Hy Exy),
                (den_indep_le s _ psi lvl H Dg Hmg x y Hx Hy Exy),
                (den_indep_le s _ theta lvl H Dh Hmh x y Hx Hy Exy).
        reflexivity.
      * apply (IH s c ft gt' ht _ _ _ B O Dft Dgt Dht). apply (fuel_below3 _ lvl _ _ _ _ Hfuel Hlvl Lft Lgt Lht).
      * intros s1 c1 B1 X1 O1.
        apply (IH s1 c1 fe ge he _ _ _ B1 O1 (den_extends s s1 _ _ B X1 Dfe)
                 (den_extends s s1 _ _ B X1 Dge) (den_extends s s1 _ _ B X1 Dhe)).
        rewrite (ext_nlevels _ _ X1), (ext_rlevel _ _ _ X1 (proj1 Dfe)),
                (ext_rlevel _ _ _ X1 (proj1 Dge)), (ext_rlevel _ _ _ X1 (proj1 Dhe)).
        apply (fuel_below3 _ lvl _ _ _ _ Hfuel Hlvl Lfe Lge Lhe).
      * intros s3 r X03 Dres _. exists phi, psi, theta.
        split; [apply (den_extends s s3 _ _ B X03 Df)|].
        split; [apply (den_extends s s3 _ _ B X03 Dg)|].
        split; [apply (den_extends s s3 _ _ B X03 Dh) | exact Dres].
  - (* g inner, h = true: f -> g *)
    pose proof (view_den_T s h true theta Dh Vh) as U.
    apply (result_ok_ext s c _ (fun c0 => eval_bop OImp (phi c0) (psi c0))).
    + apply (apply_bin_ok OImp (S n) s c f g phi psi B O Df Dg Hfg).
    + pw3 phi psi theta.
  - (* g inner, h = false: f /\ g *)
    pose proof (view_den_T s h false theta Dh Vh) as U.
    apply (result_ok_ext s c _ (fun c0 => eval_bop OAnd (phi c0) (psi c0))).
    + apply (apply_bin_ok OAnd (S n) s c f g phi psi B O Df Dg Hfg).
    + pw3 phi psi theta.
  - (* g = true, h inner: f \/ h *)
    pose proof (view_den_T s g true psi Dg Vg) as U.
    apply (result_ok_ext s c _ (fun c0 => eval_bop OOr (phi c0) (theta c0))).
    + apply (apply_bin_ok OOr (S n) s c f h phi theta B O Df Dh Hfh).
    + pw3 phi psi theta.
  - (* g = true, h = true: excluded by g <> h, the code returns f *)
    pose proof (view_den_T s g true psi Dg Vg) as U. pose proof (view_den_T s h true theta Dh Vh) as U'.
    exfalso. destruct (view_VT s g true Vg) as [tg [-> Tg]]. destruct (view_VT s h true Vh) as [th [-> Th]].
    rewrite (term_val_inj s tg th _ H Tg Th) in Egh.
    assert (X : ref_eqb (RT th) (RT th) = true) by (apply ref_eqb_eq; reflexivity). congruence.
  - (* g = true, h = false: f *)
    pose proof (view_den_T s g true psi Dg Vg) as U. pose proof (view_den_T s h false theta Dh Vh) as U'.
    apply result_ok_here; auto. apply (den_ext s f phi); [exact Df|]. pw3 phi psi theta.
  - (* g = false, h inner: ~f /\ h *)
    pose proof (view_den_T s g false psi Dg Vg) as U.
    apply (result_ok_ext s c _ (fun c0 => eval_bop OImpStrict (phi c0) (theta c0))).
    + apply (apply_bin_ok OImpStrict (S n) s c f h phi theta B O Df Dh Hfh).
    + pw3 phi psi theta.
  - (* g = false, h = true: ~f *)
    pose proof (view_den_T s g false psi Dg Vg) as U. pose proof (view_den_T s h true theta Dh Vh) as U'.
    apply (result_ok_ext s c _ (fun c0 => negb (phi c0))).
    + apply (apply_not_ok (S n) s c f phi B O Df). lia.
    + pw3 phi psi theta.
  - (* g = false, h = false: excluded by g <> h *)
    exfalso. destruct (view_VT s g false Vg) as [tg [-> Tg]]. destruct (view_VT s h false Vh) as [th [-> Th]].
    rewrite (term_val_inj s tg th _ H Tg Th) in Egh.
    assert (X : ref_eqb (RT th) (RT th) = true) by (apply ref_eqb_eq; reflexivity). congruence.
Qed.

End CacheSec.

Arguments lossy {C}.
Arguments CacheOK {C}.

(** ** Cache instances *)

Lemma refs_eqb_eq : forall a b, refs_eqb a b = true <-> a = b.
Proof.
  induction a as [|x a IH]; intros [|y b]; simpl; split; intro Hx;
    try discriminate; try reflexivity.
  - apply andb_true_iff in Hx. destruct Hx as [H1 H2].
    apply ref_eqb_eq in H1. apply IH in H2. congruence.
  - inversion Hx; subst. apply andb_true_iff. split; [apply ref_eqb_eq | apply IH]; reflexivity.
Qed.

Lemma ac_lossy : lossy ac_get ac_add.
Proof.
  intros c k a r k' a' r' E. unfold ac_add in E. simpl in E.
  destruct (N.eqb k k' && refs_eqb a a') eqn:Ek; [|right; exact E].
  apply andb_true_iff in Ek. destruct Ek as [E1 E2].
  apply N.eqb_eq in E1. apply refs_eqb_eq in E2. inversion E; subst. left. auto.
Qed.

Lemma nc_lossy : lossy nc_get nc_add.
Proof. intros c k a r k' a' r' E. discriminate. Qed.

Lemma ac_empty_ok : forall s, CacheOK ac_get s [].
Proof. intros s code args r E. discriminate. Qed.

Lemma nc_ok : forall s c, CacheOK nc_get s c.
Proof. intros s c code args r E. discriminate. Qed.

(** ** The theorems in terms of [semk] only *)

Definition FUEL (s : snap) : nat := S (nlevels s).

(** value of [r] under [c0]: [semk] with the standard fuel, as a Boolean *)
Definition bvalue (s : snap) (r : ref) (c0 : nat -> nat) (x : bool) : Prop :=
  semk s (FUEL s) r c0 = Some (b2c x).

Lemma bvalue_fun : forall s r c0 x y, bvalue s r c0 x -> bvalue s r c0 y -> x = y.
Proof. intros s r c0 x y A B. unfold bvalue in *. apply b2c_inj. congruence. Qed.

Section Top.
Variable gt : ref -> ref -> bool.
Variable C : Type.
Variable cget : C -> N -> list ref -> option ref.
Variable cadd : C -> N -> list ref -> ref -> C.
Hypothesis Hlossy : lossy cget cadd.

Theorem apply_not_sound : forall fuel s c f,
  BddOK s -> CacheOK cget s c -> ref_ok s f -> FUEL s <= fuel ->
  exists s' c' r, apply_not C cget cadd fuel s c f = Some (s', c', r) /\
    BddOK s' /\ extends s s' /\ CacheOK cget s' c' /\ ref_ok s' r /\
    forall c0, bchoice c0 -> exists x,
      bvalue s f c0 x /\ bvalue s' r c0 (negb x).
Proof.
  intros fuel s c f B O Hf Hfuel. destruct (den_exists s f B Hf) as [phi D].
  pose proof (rlevel_le s (bo_wf s B) f). unfold FUEL in Hfuel.
  destruct (apply_not_ok C cget cadd Hlossy fuel s c f phi B O D ltac:(lia))
    as [s' [c' [r [E [B' [X [O' [D' _]]]]]]]].
  exists s', c', r. repeat (split; [assumption|]). split; [apply (proj1 D')|].
  intros c0 Hc. exists (phi c0). split; [apply (proj2 D c0 Hc) | apply (proj2 D' c0 Hc)].
Qed.

Theorem apply_bin_sound : forall op fuel s c f g,
  BddOK s -> CacheOK cget s c -> ref_ok s f -> ref_ok s g -> FUEL s <= fuel ->
  exists s' c' r, apply_bin gt C cget cadd fuel s c op f g = Some (s', c', r) /\
    BddOK s' /\ extends s s' /\ CacheOK cget s' c' /\ ref_ok s' r /\
    forall c0, bchoice c0 -> exists x y,
      bvalue s f c0 x /\ bvalue s g c0 y /\ bvalue s' r c0 (eval_bop op x y).
Proof.
  intros op fuel s c f g B O Hf Hg Hfuel.
  destruct (den_exists s f B Hf) as [phi Df]. destruct (den_exists s g B Hg) as [psi Dg].
  unfold FUEL in Hfuel.
  destruct (apply_bin_ok gt C cget cadd Hlossy op fuel s c f g phi psi B O Df Dg ltac:(lia))
    as [s' [c' [r [E [B' [X [O' [D' _]]]]]]]].
  exists s', c', r. repeat (split; [assumption|]). split; [apply (proj1 D')|].
  intros c0 Hc. exists (phi c0), (psi c0).
  split; [apply (proj2 Df c0 Hc)|]. split; [apply (proj2 Dg c0 Hc) | apply (proj2 D' c0 Hc)].
Qed.

Theorem apply_ite_sound : forall fuel s c f g h,
  BddOK s -> CacheOK cget s c -> ref_ok s f -> ref_ok s g -> ref_ok s h -> FUEL s <= fuel ->
  exists s' c' r, apply_ite gt C cget cadd fuel s c f g h = Some (s', c', r) /\
    BddOK s' /\ extends s s' /\ CacheOK cget s' c' /\ ref_ok s' r /\
    forall c0, bchoice c0 -> exists x y z,
      bvalue s f c0 x /\ bvalue s g c0 y /\ bvalue s h c0 z /\
      bvalue s' r c0 (if x then y else z).
Proof.
  intros fuel s c f g h B O Hf Hg Hh Hfuel.
  destruct (den_exists s f B Hf) as [phi Df]. destruct (den_exists s g B Hg) as [psi Dg].
  destruct (den_exists s h B Hh) as [theta Dh]. unfold FUEL in Hfuel.
  destruct (apply_ite_ok gt C cget cadd Hlossy fuel s c f g h phi psi theta B O Df Dg Dh ltac:(lia))
    as [s' [c' [r [E [B' [X [O' [D' _]]]]]]]].
  exists s', c', r. repeat (split; [assumption|]). split; [apply (proj1 D')|].
  intros c0 Hc. exists (phi c0), (psi c0), (theta c0).
  split; [apply (proj2 Df c0 Hc)|]. split; [apply (proj2 Dg c0 Hc)|].
  split; [apply (proj2 Dh c0 Hc) | apply (proj2 D' c0 Hc)].
Qed.

End Top.


(** ** C06: the returned handle does not depend on the cache or on history *)

Section Transparent.
(** two arbitrary cache implementations and operand orders *)
Variables gt1 gt2 : ref -> ref -> bool.
Variables C1 C2 : Type.
Variable cget1 : C1 -> N -> list ref -> option ref.
Variable cadd1 : C1 -> N -> list ref -> ref -> C1.
Variable cget2 : C2 -> N -> list ref -> option ref.
Variable cadd2 : C2 -> N -> list ref -> ref -> C2.
Hypothesis L1 : lossy cget1 cadd1.
Hypothesis L2 : lossy cget2 cadd2.

(** generic form: two runs of anything satisfying [result_ok] *)
Lemma runs_same_function : forall s c1 c2 res1 res2 Phi s1 c1' r1 s2 c2' r2,
  result_ok C1 cget1 s c1 res1 Phi -> result_ok C2 cget2 s c2 res2 Phi ->
  res1 = Some (s1, c1', r1) -> res2 = Some (s2, c2', r2) ->
  forall c0, bchoice c0 -> semk s1 (FUEL s1) r1 c0 = semk s2 (FUEL s2) r2 c0.
Proof.
  intros s c1 c2 res1 res2 Phi s1 c1' r1 s2 c2' r2
    [sa [ca [ra [Ea [_ [_ [_ [Da _]]]]]]]] [sb [cb [rb [Eb [_ [_ [_ [Db _]]]]]]]] E1 E2 c0 Hc.
  rewrite E1 in Ea. rewrite E2 in Eb. inversion Ea; subst. inversion Eb; subst.
  unfold FUEL. rewrite (proj2 Da c0 Hc), (proj2 Db c0 Hc). reflexivity.
Qed.


(** (a) whatever the two caches contain (as long as it is correct), the two
    results denote the same function *)
Theorem apply_bin_cache_transparent_sem : forall op s c1 c2 f g fuel1 fuel2 s1 c1' r1 s2 c2' r2,
  BddOK s -> CacheOK cget1 s c1 -> CacheOK cget2 s c2 -> ref_ok s f -> ref_ok s g ->
  FUEL s <= fuel1 -> FUEL s <= fuel2 ->
  apply_bin gt1 C1 cget1 cadd1 fuel1 s c1 op f g = Some (s1, c1', r1) ->
  apply_bin gt2 C2 cget2 cadd2 fuel2 s c2 op f g = Some (s2, c2', r2) ->
  forall c0, bchoice c0 -> semk s1 (FUEL s1) r1 c0 = semk s2 (FUEL s2) r2 c0.
Proof.
  intros op s c1 c2 f g fuel1 fuel2 s1 c1' r1 s2 c2' r2 B O1 O2 Hf Hg F1 F2 E1 E2.
  destruct (den_exists s f B Hf) as [phi Df]. destruct (den_exists s g B Hg) as [psi Dg].
  unfold FUEL in F1, F2.
  eapply runs_same_function; [| | exact E1 | exact E2].
  - apply (apply_bin_ok gt1 C1 cget1 cadd1 L1 op fuel1 s c1 f g phi psi B O1 Df Dg). lia.
  - apply (apply_bin_ok gt2 C2 cget2 cadd2 L2 op fuel2 s c2 f g phi psi B O2 Df Dg). lia.
Qed.

(** (b) repeating the operation in any later state of the same table (more
    nodes, any correct cache of any implementation, any operand order) returns
    the identical reference and leaves the table unchanged *)
Definition rerun_same_ref :=
  grerun_same ref BddOK Den den_extends C1 C2 cget1 cget2 entry_ok entry_ok.

Theorem apply_bin_history_independent : forall op s c1 f g fuel1 s1 c1' r1,
  BddOK s -> CacheOK cget1 s c1 -> ref_ok s f -> ref_ok s g -> FUEL s <= fuel1 ->
  apply_bin gt1 C1 cget1 cadd1 fuel1 s c1 op f g = Some (s1, c1', r1) ->
  forall s2 c2 fuel2, BddOK s2 -> extends s1 s2 -> CacheOK cget2 s2 c2 -> FUEL s2 <= fuel2 ->
  exists c2', apply_bin gt2 C2 cget2 cadd2 fuel2 s2 c2 op f g = Some (s2, c2', r1).
Proof.
  intros op s c1 f g fuel1 s1 c1' r1 B O1 Hf Hg F1 E1 s2 c2 fuel2 B2 X O2 F2.
  destruct (den_exists s f B Hf) as [phi Df]. destruct (den_exists s g B Hg) as [psi Dg].
  unfold FUEL in F1, F2.
  destruct (rerun_same_ref s c1 _ _ s1 c1' r1 s2
              (apply_bin_ok gt1 C1 cget1 cadd1 L1 op fuel1 s c1 f g phi psi B O1 Df Dg ltac:(lia)) E1 X)
    as [X02 R].
  apply (R c2). apply (apply_bin_ok gt2 C2 cget2 cadd2 L2 op fuel2 s2 c2 f g phi psi B2 O2
                         (den_extends s s2 _ _ B X02 Df) (den_extends s s2 _ _ B X02 Dg)). lia.
Qed.

Theorem apply_not_history_independent : forall s c1 f fuel1 s1 c1' r1,
  BddOK s -> CacheOK cget1 s c1 -> ref_ok s f -> FUEL s <= fuel1 ->
  apply_not C1 cget1 cadd1 fuel1 s c1 f = Some (s1, c1', r1) ->
  forall s2 c2 fuel2, BddOK s2 -> extends s1 s2 -> CacheOK cget2 s2 c2 -> FUEL s2 <= fuel2 ->
  exists c2', apply_not C2 cget2 cadd2 fuel2 s2 c2 f = Some (s2, c2', r1).
Proof.
  intros s c1 f fuel1 s1 c1' r1 B O1 Hf F1 E1 s2 c2 fuel2 B2 X O2 F2.
  destruct (den_exists s f B Hf) as [phi Df]. unfold FUEL in F1, F2.
  pose proof (rlevel_le s (bo_wf s B) f). pose proof (rlevel_le s2 (bo_wf s2 B2) f).
  destruct (rerun_same_ref s c1 _ _ s1 c1' r1 s2
              (apply_not_ok C1 cget1 cadd1 L1 fuel1 s c1 f phi B O1 Df ltac:(lia)) E1 X)
    as [X02 R].
  apply (R c2). apply (apply_not_ok C2 cget2 cadd2 L2 fuel2 s2 c2 f phi B2 O2
                         (den_extends s s2 _ _ B X02 Df)). lia.
Qed.

Theorem apply_ite_history_independent : forall s c1 f g h fuel1 s1 c1' r1,
  BddOK s -> CacheOK cget1 s c1 -> ref_ok s f -> ref_ok s g -> ref_ok s h -> FUEL s <= fuel1 ->
  apply_ite gt1 C1 cget1 cadd1 fuel1 s c1 f g h = Some (s1, c1', r1) ->
  forall s2 c2 fuel2, BddOK s2 -> extends s1 s2 -> CacheOK cget2 s2 c2 -> FUEL s2 <= fuel2 ->
  exists c2', apply_ite gt2 C2 cget2 cadd2 fuel2 s2 c2 f g h = Some (s2, c2', r1).
Proof.
  intros s c1 f g h fuel1 s1 c1' r1 B O1 Hf Hg Hh F1 E1 s2 c2 fuel2 B2 X O2 F2.
  destruct (den_exists s f B Hf) as [phi Df]. destruct (den_exists s g B Hg) as [psi Dg].
  destruct (den_exists s h B Hh) as [theta Dh]. unfold FUEL in F1, F2.
  destruct (rerun_same_ref s c1 _ _ s1 c1' r1 s2
              (apply_ite_ok gt1 C1 cget1 cadd1 L1 fuel1 s c1 f g h phi psi theta B O1 Df Dg Dh ltac:(lia)) E1 X)
    as [X02 R].
  apply (R c2). apply (apply_ite_ok gt2 C2 cget2 cadd2 L2 fuel2 s2 c2 f g h phi psi theta B2 O2
                         (den_extends s s2 _ _ B X02 Df) (den_extends s s2 _ _ B X02 Dg)
                         (den_extends s s2 _ _ B X02 Dh)). lia.
Qed.

End Transparent.

(** (c) in its result table the returned reference is THE reference with the
    result's meaning *)
Theorem apply_bin_result_unique : forall gt C cget cadd, lossy cget cadd ->
  forall op fuel s (c : C) f g s' c' r,
  BddOK s -> CacheOK cget s c -> ref_ok s f -> ref_ok s g -> FUEL s <= fuel ->
  apply_bin gt C cget cadd fuel s c op f g = Some (s', c', r) ->
  forall r0, ref_ok s' r0 ->
    (forall c0, bchoice c0 -> exists x y,
        bvalue s f c0 x /\ bvalue s g c0 y /\ bvalue s' r0 c0 (eval_bop op x y)) ->
    r0 = r.
Proof.
  intros gt C cget cadd L op fuel s c f g s' c' r B O Hf Hg F E r0 H0 Hsem.
  destruct (den_exists s f B Hf) as [phi Df]. destruct (den_exists s g B Hg) as [psi Dg].
  unfold FUEL in F.
  destruct (apply_bin_ok gt C cget cadd L op fuel s c f g phi psi B O Df Dg ltac:(lia))
    as [sa [ca [ra [Ea [Ba [_ [_ [Da _]]]]]]]].
  rewrite E in Ea. inversion Ea; subst sa ca ra.
  apply (den_canon s' r0 r (fun c0 => eval_bop op (phi c0) (psi c0)) Ba); [|exact Da].
  split; [exact H0|]. intros c0 Hc. destruct (Hsem c0 Hc) as [x [y [Vx [Vy V0]]]].
  rewrite (bvalue_fun s f c0 _ _ (proj2 Df c0 Hc) Vx), (bvalue_fun s g c0 _ _ (proj2 Dg c0 Hc) Vy).
  exact V0.
Qed.
