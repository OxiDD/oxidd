(** * Soundness of the fused [capply_quant] and of the two dispatch tables
      (complement-edge kind)

    [capply_quant_ok]: for the three instances [And], [Xor], [UniqueNand] of
    [OP] and every quantifier for which the code is instantiated, the result
    denotes the quantification of the operator applied pointwise.
    [capply_quant_edge_ok]: [apply_forall_edge] / [apply_exists_edge] /
    [apply_unique_edge] through [apply_quant_dispatch::<Q, QN>] and
    [apply_quant_unique_dispatch], all 8 operators: the quantification of
    [eval_bop op]. *)

From Coq Require Import List NArith PArith Bool Arith Lia FMapPositive.
From OxiVerif Require Import DD.Table DD.TableProofs DD.Canon DD.CanonBcdd DD.Sem DD.Build DD.BuildProofs
  DD.Apply DD.ApplyProofs DD.ApplyBcdd DD.ApplyBcddProofs DD.ApplyBcddIte
  DD.Quant DD.QuantSpecProofs DD.QuantLemmas DD.QuantProofs DD.QuantBcdd DD.QuantBcddLemmas DD.QuantBcddProofs.
Import ListNotations.

Section AQ.
Variable lt : edge -> edge -> bool.
Variable C : Type.
Variable cget : C -> N -> list edge -> option edge.
Variable cadd : C -> N -> list edge -> edge -> C.
Hypothesis Hlossy : lossyC cget cadd.
Variable Sg : N -> option (list (nat * edge)).

Notation QOKC := (QCacheOKC cget Sg).
Notation qcres := (qcresult_ok cget Sg).
Notation cres := (option (snap * C * edge)).

(** the part of [apply_quant] after the terminal cases and the operand ordering *)
Definition caq_body (rec : snap -> C -> edge -> edge -> edge -> cres)
           (s : snap) (c : C) (q : quantifier) (o : aqop) (operator : N)
           (f : edge) (fnode : node) (g : edge) (gnode : node) (vars : edge) : cres :=
  let flevel := nstored fnode in
  let glevel := nstored gnode in
  let min_level := Nat.min flevel glevel in
  match (if is_unique q then Some vars else cset_pop (S (nlevels s)) s vars min_level) with
  | None => None
  | Some vars' =>
    match eref vars' with
    | RT _ => cplain lt C cget cadd s c o f g
    | RN vid =>
      match find_node s vid with
      | None => None
      | Some vnode =>
        let vlevel := nstored vnode in
        if Nat.ltb vlevel min_level && is_unique q then cfalse C s c
        else if Nat.ltb vlevel min_level then cplain lt C cget cadd s c o f g
        else
          match cget c operator [f; g; vars'] with
          | Some h => Some (s, c, h)
          | None =>
            match (if Nat.eqb vlevel min_level
                   then match nchildren vnode with [vt; _] => Some vt | _ => None end
                   else Some vars'),
                  (if Nat.leb flevel glevel then ccofs (etag f) fnode else Some (f, f)),
                  (if Nat.leb glevel flevel then ccofs (etag g) gnode else Some (g, g)) with
            | Some vt, Some (ft, fe), Some (gt', ge) =>
              match rec s c ft gt' vt with
              | None => None
              | Some (s1, c1, t) =>
                match rec s1 c1 fe ge vt with
                | None => None
                | Some (s2, c2, e) =>
                  if Nat.eqb min_level vlevel then
                    match ccombine lt C cget cadd s2 c2 q t e with
                    | None => None
                    | Some (s3, c3, res) => Some (s3, cadd c3 operator [f; g; vars'] res, res)
                    end
                  else
                    let '(s3, h) := cmk_node s2 min_level t e in
                    Some (s3, cadd c2 operator [f; g; vars'] h, h)
                end
              end
            | _, _, _ => None
            end
          end
      end
    end
  end.

Lemma capply_quant_S : forall n s c q o f g vars,
  capply_quant lt C cget cadd (S n) s c q o f g vars =
    match caqcode q o with
    | None => None
    | Some operator =>
      match (match o with AQXor => cterminal_xor s f g | _ => cterminal_and s f g end) with
      | KFail => None
      | KDone h =>
        cquant_rec lt C cget cadd (S (nlevels s)) s c q (match o with AQNand => enot h | _ => h end) vars
      | KNodes fnode0 gnode0 =>
        if lt f g
        then caq_body (fun s0 c0 a b v => capply_quant lt C cget cadd n s0 c0 q o a b v)
                      s c q o operator f fnode0 g gnode0 vars
        else caq_body (fun s0 c0 a b v => capply_quant lt C cget cadd n s0 c0 q o a b v)
                      s c q o operator g gnode0 f fnode0 vars
      end
    end.
Proof.
  intros n s c q o f g vars. simpl. destruct (caqcode q o); [|reflexivity].
  destruct (match o with AQXor => cterminal_xor s f g | _ => cterminal_and s f g end); try reflexivity.
  destruct (lt f g); reflexivity.
Qed.

Lemma aqeval_comm : forall o x y, aqeval o x y = aqeval o y x.
Proof. intros [] [] []; reflexivity. Qed.

(** the cofactor pair chosen for an operand is [ccof2] of DD/ApplyBcdd.v *)
Lemma pair_is_ccof2 : forall (e : edge) (nd : node) (other : nat), nstored nd = nlevel nd ->
  (if Nat.leb (nlevel nd) other then ccofs (etag e) nd else Some (e, e))
  = ccof2 e nd (Nat.min (nlevel nd) other).
Proof.
  intros e nd other Es. unfold ccof2. rewrite Es.
  destruct (Nat.leb_spec (nlevel nd) other) as [Hle|Hgt].
  - rewrite Nat.min_l by exact Hle. rewrite Nat.eqb_refl. reflexivity.
  - rewrite Nat.min_r by lia. destruct (Nat.eqb_spec (nlevel nd) other); [lia | reflexivity].
Qed.

(** [cplain]: the operator without quantification *)
Lemma qc_plain : forall o s c f g phi psi, BcOK s -> QOKC s c -> DenC s f phi -> DenC s g psi ->
  qcres s (cplain lt C cget cadd s c o f g) (fun c0 => aqeval o (phi c0) (psi c0)).
Proof.
  intros o s c f g phi psi B Q Df Dg. destruct o; unfold cplain.
  - apply (qc_apply_bin lt C cget cadd Hlossy Sg CAnd s c f g phi psi B Q Df Dg).
  - apply (qc_apply_bin lt C cget cadd Hlossy Sg CXor s c f g phi psi B Q Df Dg).
  - apply (qcresult_not C cget Sg s _ _ (qc_apply_bin lt C cget cadd Hlossy Sg CAnd s c f g phi psi B Q Df Dg)).
Qed.

Theorem capply_quant_ok : forall q o k, caqcode q o = Some k ->
  forall fuel s c f g vars phi psi L,
  BcOK s -> QOKC s c -> DenC s f phi -> DenC s g psi -> ref_ok s (eref vars) -> VChainC s vars L ->
  nlevels s - Nat.min (rlevel s (eref f)) (rlevel s (eref g)) < fuel ->
  qcres s (capply_quant lt C cget cadd fuel s c q o f g vars)
        (qlevs (qf q) L (fun c0 => aqeval o (phi c0) (psi c0))).
Proof.
  intros q o k Ek. induction fuel as [|n IH]; intros s c f g vars phi psi L B Q Df Dg Ov V Hfuel; [lia|].
  pose proof (bc_wf s B) as H.
  rewrite capply_quant_S, Ek.
  (* the terminal cases, by the operator the code uses *)
  set (cop_of := match o with AQXor => CXor | _ => CAnd end).
  assert (Et : (match o with AQXor => cterminal_xor s f g | _ => cterminal_and s f g end)
               = cterminal s cop_of f g) by (unfold cop_of; destruct o; reflexivity).
  rewrite Et. pose proof (cterminal_sound s cop_of f g phi psi B Df Dg) as T.
  destruct (cterminal s cop_of f g) as [h|fn gn|]; [| |contradiction].
  - (* decided: quantify the result *)
    assert (Dh : DenC s (match o with AQNand => enot h | _ => h end)
                      (fun c0 => aqeval o (phi c0) (psi c0))).
    { unfold cop_of in T. destruct o; simpl in T; [exact T | exact T|].
      apply (denc_ext s (enot h) _ _ (denc_not s h _ T)). reflexivity. }
    pose proof (rlevel_le s H (eref (match o with AQNand => enot h | _ => h end))).
    apply (cquant_rec_ok lt C cget cadd Hlossy Sg q (S (nlevels s)) s c _ vars _ L B Q Dh Ov V). lia.
  - destruct T as [idf [idg [Erf [Ef [Erg Eg]]]]].
    assert (Core : forall a ida anode b idb bnode pa pb,
               DenC s a pa -> DenC s b pb ->
               eref a = RN ida -> find_node s ida = Some anode ->
               eref b = RN idb -> find_node s idb = Some bnode ->
               nlevels s - Nat.min (nlevel anode) (nlevel bnode) < S n ->
               qcres s (caq_body (fun s0 c0 a0 b0 v => capply_quant lt C cget cadd n s0 c0 q o a0 b0 v)
                                 s c q o k a anode b bnode vars)
                     (qlevs (qf q) L (fun c0 => aqeval o (pa c0) (pb c0)))).
    { clear Et Df Dg phi psi Hfuel Erf Ef Erg Eg idf idg fn gn f g.
      intros f idf fnd g idg gnd phi psi Df Dg Erf Ef Erg Eg Hfuel.
      pose proof (wf_level s H idf fnd Ef) as Hlf. pose proof (wf_level s H idg gnd Eg) as Hlg.
      unfold caq_body. cbv zeta.
      rewrite (wf_stored s H idf fnd Ef), (wf_stored s H idg gnd Eg).
      set (m := Nat.min (nlevel fnd) (nlevel gnd)) in *.
      set (Phi := fun c0 : nat -> nat => aqeval o (phi c0) (psi c0)).
      assert (IP : indep Phi m).
      { apply indep_bin; [rewrite <- (rlevel_node s idf fnd Ef), <- Erf; apply (denc_indep s _ phi H Df)
                         | rewrite <- (rlevel_node s idg gnd Eg), <- Erg; apply (denc_indep s _ psi H Dg)]. }
      assert (XP : cext Phi) by (apply (cext_indep Phi m IP)).
      assert (Hm : m < nlevels s) by lia.
      destruct (cpop_ok s q vars L m Phi B Ov V Hm IP) as [vars' [L' [Epop [Ov' [V' [Hge HL]]]]]].
      rewrite Epop.
      apply (qcresult_ok_ext C cget Sg s _ (qlevs (qf q) L' Phi));
        [|intros c0 Hc; symmetry; apply HL; exact Hc].
      clear HL V Ov L vars Epop.
      destruct (eref vars') as [tv|vid] eqn:Erv.
      { rewrite (vchainc_T_inv s vars' tv L' V' Erv). simpl qlevs.
        apply (qc_plain o s c f g phi psi B Q Df Dg). }
      destruct Ov' as [vnd Evn]. rewrite Evn. rewrite (wf_stored s H vid vnd Evn).
      set (vlvl := nlevel vnd) in *.
      destruct (vchainc_N_inv s vars' vid vnd L' V' Erv Evn) as [vt0 [ve0 [L'' [Evch [EL' Vt]]]]].
      destruct (Nat.ltb vlvl m && is_unique q) eqn:Eu.
      { apply andb_true_iff in Eu. destruct Eu as [Hlt Eq]. apply Nat.ltb_lt in Hlt.
        apply (qc_false C cget Sg s c _ B Q). intros c0 Hc. rewrite EL'.
        apply (qlevs_unique_nodep q vlvl L'' Phi Eq XP (indep_nodep Phi m vlvl IP Hlt) c0 Hc). }
      assert (Hvl : m <= vlvl).
      { destruct (is_unique q) eqn:Eq.
        - rewrite andb_true_r in Eu. apply Nat.ltb_ge in Eu. exact Eu.
        - specialize (Hge eq_refl). rewrite (rlevel_node s vid vnd Evn) in Hge. exact Hge. }
      clear Eu Hge.
      destruct (Nat.ltb_spec vlvl m) as [Hbad|_]; [lia|].
      destruct (cget c k [f; g; vars']) as [h|] eqn:Ecache.
      { destruct (proj1 (proj2 (proj2 (proj2 Q _ _ _ Ecache))) q o f g vars' Ek eq_refl)
          as [phi0 [psi0 [L0 [D0 [D0' [V0 Dh]]]]]].
        apply (qcresult_ok_here C cget Sg s c _ _ B Q).
        rewrite (vchainc_fun s _ _ _ V0 V') in Dh.
        apply (denc_ext s h _ _ Dh). apply qlevs_ext. intros c0 Hc. unfold Phi.
        rewrite (denc_unique s _ phi0 phi D0 Df c0 Hc), (denc_unique s _ psi0 psi D0' Dg c0 Hc).
        reflexivity. }
      destruct (cvt_ok s vars' vid vnd L' m B Erv Evn V' Hvl) as [vt' [Lr [Evt [Ovt [Vr [Hnin HLr]]]]]].
      fold vlvl in Evt, HLr. rewrite Evt.
      rewrite (pair_is_ccof2 f fnd (nlevel gnd) (wf_stored s H idf fnd Ef)).
      rewrite (pair_is_ccof2 g gnd (nlevel fnd) (wf_stored s H idg gnd Eg)).
      rewrite (Nat.min_comm (nlevel gnd) (nlevel fnd)). fold m.
      destruct (ccof2_ok s f idf fnd phi m B Df Erf Ef ltac:(lia)) as [ft [fe [Ecf [Dft [Dfe [Lft Lfe]]]]]].
      destruct (ccof2_ok s g idg gnd psi m B Dg Erg Eg ltac:(lia)) as [gt' [ge [Ecg [Dgt [Dge [Lgt Lge]]]]]].
      rewrite Ecf, Ecg.
      pose proof (caqcode_range q o k Ek) as Hk.
      apply (cquant_step lt C cget cadd Hlossy Sg q s m vlvl L' Lr Phi k [f; g; vars'] _
               (fun s1 c1 => capply_quant lt C cget cadd n s1 c1 q o fe ge vt') B Hm IP Hnin HLr).
      + apply (IH s c ft gt' vt' _ _ Lr B Q Dft Dgt Ovt Vr). lia.
      + intros s1 c1 B1 X1 Q1.
        apply (IH s1 c1 fe ge vt' _ _ Lr B1 Q1 (denc_extends s s1 _ _ B X1 Dfe) (denc_extends s s1 _ _ B X1 Dge)
                 (ext_ref_ok _ _ _ X1 Ovt) (vchainc_extends _ _ _ _ X1 Vr)).
        rewrite (ext_nlevels _ _ X1), (ext_rlevel _ _ _ X1 (proj1 Dfe)), (ext_rlevel _ _ _ X1 (proj1 Dge)). lia.
      + lia.
      + intros s' r X' D'.
        apply (cqentry_aq Sg s' q o k f g vars' r phi psi L' Ek);
          [apply (denc_extends s s' _ _ B X' Df) | apply (denc_extends s s' _ _ B X' Dg)
           | apply (vchainc_extends _ _ _ _ X' V') | exact D']. }
    rewrite Erf, Erg, (rlevel_node s idf fn Ef), (rlevel_node s idg gn Eg) in Hfuel.
    destruct (lt f g).
    + apply (Core f idf fn g idg gn phi psi Df Dg Erf Ef Erg Eg Hfuel).
    + apply (qcresult_ok_ext C cget Sg s _ (qlevs (qf q) L (fun c0 => aqeval o (psi c0) (phi c0)))).
      * apply (Core g idg gn f idf fn psi phi Dg Df Erg Eg Erf Ef). rewrite Nat.min_comm. exact Hfuel.
      * apply qlevs_ext. intros c0 _. apply aqeval_comm.
Qed.

Lemma qc_aq : forall q o k s c f g vars phi psi L, caqcode q o = Some k ->
  BcOK s -> QOKC s c -> DenC s f phi -> DenC s g psi -> ref_ok s (eref vars) -> VChainC s vars L ->
  qcres s (aq lt C cget cadd s c q o f g vars) (qlevs (qf q) L (fun c0 => aqeval o (phi c0) (psi c0))).
Proof.
  intros q o k s c f g vars phi psi L Ek B Q Df Dg Ov V. unfold aq.
  apply (capply_quant_ok q o k Ek (S (nlevels s)) s c f g vars phi psi L B Q Df Dg Ov V). lia.
Qed.

(** the dual quantifier at the level-indexed layer *)
Lemma qlevs_dual : forall q L phi, q <> QUnique -> forall c, bchoice c ->
  negb (qlevs (qf (qdual q)) L phi c) = qlevs (qf q) L (fun c0 => negb (phi c0)) c.
Proof.
  intros q L phi Hq. induction L as [|l r IH]; intros c Hc; [reflexivity|].
  simpl qlevs. unfold qlev, cofn. rewrite <- !IH by (apply bchoice_upd; auto).
  destruct q; [| |contradiction]; unfold qf; simpl;
    destruct (qlevs _ r phi (cupd c l 0)), (qlevs _ r phi (cupd c l 1)); reflexivity.
Qed.

(** ** The dispatch tables

    [capply_quant_dispatch] and [capply_quant_unique_dispatch] run the rows of
    [bcdd_dispatch] / [bcdd_unique_dispatch] (DD/Quant.v): one row = which
    operands and whether the result are complemented around one call of [aq] *)

Definition aqop_of (o : bop) : aqop :=
  match o with OXor => AQXor | ONand => AQNand | _ => AQAnd end.

Definition crun_row (r : drow) (s : snap) (c : C) (f g vars : edge) : cres :=
  let res := aq lt C cget cadd s c (d_q r) (aqop_of (d_op r))
                (if d_nf r then enot f else f) (if d_ng r then enot g else g) vars in
  if d_nres r then onot C res else res.

Lemma crun_row_ok : forall r k s c f g vars phi psi L, caqcode (d_q r) (aqop_of (d_op r)) = Some k ->
  BcOK s -> QOKC s c -> DenC s f phi -> DenC s g psi -> ref_ok s (eref vars) -> VChainC s vars L ->
  qcres s (crun_row r s c f g vars)
        (fun c0 => xorb (d_nres r)
           (qlevs (qf (d_q r)) L
              (fun c1 => aqeval (aqop_of (d_op r)) (xorb (d_nf r) (phi c1)) (xorb (d_ng r) (psi c1))) c0)).
Proof.
  intros [q o nf ng nres] k s c f g vars phi psi L Ek B Q Df Dg Ov V. unfold crun_row. simpl in *.
  assert (Dn : forall (b : bool) e rho, DenC s e rho ->
             DenC s (if b then enot e else e) (fun c1 => xorb b (rho c1))).
  { intros b e rho D. destruct b; [apply (denc_ext s _ _ _ (denc_not s e rho D)) | apply (denc_ext s _ _ _ D)];
      intros c1 _; destruct (rho c1); reflexivity. }
  pose proof (qc_aq q (aqop_of o) k s c _ _ vars _ _ L Ek B Q (Dn nf f phi Df) (Dn ng g psi Dg) Ov V) as R.
  destruct nres; [apply (qcresult_not C cget Sg s _ _ R)|].
  apply (qcresult_ok_ext C cget Sg s _ _ _ R). intros c0 _. destruct (qlevs _ _ _ c0); reflexivity.
Qed.

Theorem capply_quant_dispatch_ok : forall q op s c f g vars phi psi L, q <> QUnique ->
  BcOK s -> QOKC s c -> DenC s f phi -> DenC s g psi -> ref_ok s (eref vars) -> VChainC s vars L ->
  qcres s (capply_quant_dispatch lt C cget cadd s c q (qdual q) op f g vars)
        (qlevs (qf q) L (fun c0 => eval_bop op (phi c0) (psi c0))).
Proof.
  intros q op s c f g vars phi psi L Hq B Q Df Dg Ov V.
  replace (capply_quant_dispatch lt C cget cadd s c q (qdual q) op f g vars)
    with (crun_row (bcdd_dispatch q op) s c f g vars) by (destruct op; reflexivity).
  assert (K : exists k, caqcode (d_q (bcdd_dispatch q op)) (aqop_of (d_op (bcdd_dispatch q op))) = Some k)
    by (destruct q, op; simpl; eauto; contradiction).
  destruct K as [k Ek].
  apply (qcresult_ok_ext C cget Sg s _ _ _ (crun_row_ok _ k s c f g vars phi psi L Ek B Q Df Dg Ov V)).
  (* rows with a complemented result use the dual quantifier: not (QN ...) = Q (not ...) *)
  intros c0 Hc. destruct op; cbn [bcdd_dispatch d_q d_op d_nf d_ng d_nres aqop_of];
    rewrite ?xorb_false_l, ?xorb_true_l, ?(qlevs_dual q L _ Hq c0 Hc);
    (apply qlevs_ext; [|exact Hc]); intros c1 _; destruct (phi c1), (psi c1); reflexivity.
Qed.

Theorem capply_quant_unique_dispatch_ok : forall op s c f g vars phi psi L,
  BcOK s -> QOKC s c -> DenC s f phi -> DenC s g psi -> ref_ok s (eref vars) -> VChainC s vars L ->
  qcres s (capply_quant_unique_dispatch lt C cget cadd s c op f g vars)
        (qlevs (qf QUnique) L (fun c0 => eval_bop op (phi c0) (psi c0))).
Proof.
  intros op s c f g vars phi psi L B Q Df Dg Ov V.
  replace (capply_quant_unique_dispatch lt C cget cadd s c op f g vars)
    with (crun_row (bcdd_unique_dispatch op) s c f g vars) by (destruct op; reflexivity).
  assert (K : exists k, caqcode (d_q (bcdd_unique_dispatch op)) (aqop_of (d_op (bcdd_unique_dispatch op))) = Some k)
    by (destruct op; simpl; eauto).
  destruct K as [k Ek].
  apply (qcresult_ok_ext C cget Sg s _ _ _ (crun_row_ok _ k s c f g vars phi psi L Ek B Q Df Dg Ov V)).
  intros c0 Hc. destruct op; cbn [bcdd_unique_dispatch d_q d_op d_nf d_ng d_nres aqop_of];
    rewrite xorb_false_l; (apply qlevs_ext; [|exact Hc]); intros c1 _; destruct (phi c1), (psi c1); reflexivity.
Qed.

(** [apply_forall_edge] / [apply_exists_edge] / [apply_unique_edge] *)
Theorem capply_quant_edge_ok : forall q op s c f g vars phi psi L,
  BcOK s -> QOKC s c -> DenC s f phi -> DenC s g psi -> ref_ok s (eref vars) -> VChainC s vars L ->
  qcres s (capply_quant_edge lt C cget cadd s c q op f g vars)
        (qlevs (qf q) L (fun c0 => eval_bop op (phi c0) (psi c0))).
Proof.
  intros q op s c f g vars phi psi L B Q Df Dg Ov V. destruct q; unfold capply_quant_edge.
  - apply (capply_quant_dispatch_ok QForall op s c f g vars phi psi L ltac:(discriminate) B Q Df Dg Ov V).
  - apply (capply_quant_dispatch_ok QExists op s c f g vars phi psi L ltac:(discriminate) B Q Df Dg Ov V).
  - apply (capply_quant_unique_dispatch_ok op s c f g vars phi psi L B Q Df Dg Ov V).
Qed.

End AQ.
