(** * Soundness of the fused [apply_quant] of DD/Quant.v

    [apply_quant_ok]: for all 8 operators and the 3 quantifiers the result
    denotes the quantification ([qlevs]) of the operator applied pointwise to
    the two operands - i.e. the plain operator followed by the respective
    quantification - for every BddOK table, [QCacheOK] cache, variable set
    ([VChain]) and sufficient fuel. *)

From Coq Require Import List NArith PArith Bool Arith Lia FMapPositive.
From OxiVerif Require Import DD.Table DD.TableProofs DD.Canon DD.Sem DD.Build DD.BuildProofs
  DD.Apply DD.ApplyProofs DD.Quant DD.QuantLemmas DD.QuantProofs.
Import ListNotations.

Section AQ.
Variable gt : ref -> ref -> bool.
Variable C : Type.
Variable cget : C -> N -> list ref -> option ref.
Variable cadd : C -> N -> list ref -> ref -> C.
Hypothesis Hlossy : lossy cget cadd.
Variable Sg : N -> option (list (nat * ref)).

Notation QOK := (QCacheOK cget Sg).
Notation qres := (qresult_ok cget Sg).

(** the part of [apply_quant] after the terminal cases, [rec] = the recursive call *)
Definition aq_body (rec : snap -> C -> ref -> ref -> ref -> option (snap * C * ref))
           (s : snap) (c : C) (q : quantifier) (op : bop) (f g vars : ref) : option (snap * C * ref) :=
  match inner s f, inner s g with
  | Some fnode, Some gnode =>
    let flevel := nstored fnode in
    let glevel := nstored gnode in
    let min_level := Nat.min flevel glevel in
    match (if is_unique q then Some vars else set_pop (S (nlevels s)) s vars min_level) with
    | None => None
    | Some (RT _) => apply_bin gt C cget cadd (S (nlevels s)) s c op f g
    | Some (RN vid as vars') =>
      match find_node s vid with
      | None => None
      | Some vnode =>
        let vlevel := nstored vnode in
        if Nat.ltb vlevel min_level && is_unique q then
          match term_of s false with Some t => Some (s, c, RT t) | None => None end
        else if Nat.ltb vlevel min_level then
          apply_bin gt C cget cadd (S (nlevels s)) s c op f g
        else
          match cget c (aqcode q op) [f; g; vars'] with
          | Some h => Some (s, c, h)
          | None =>
            match (if Nat.eqb vlevel min_level
                   then match nchildren vnode with [vt; _] => Some (eref vt) | _ => None end
                   else Some vars'),
                  (if Nat.leb flevel glevel
                   then match nchildren fnode with [t; e] => Some (eref t, eref e) | _ => None end
                   else Some (f, f)),
                  (if Nat.leb glevel flevel
                   then match nchildren gnode with [t; e] => Some (eref t, eref e) | _ => None end
                   else Some (g, g)) with
            | Some vt, Some (ft, fe), Some (gt', ge) =>
              match rec s c ft gt' vt with
              | None => None
              | Some (s1, c1, t) =>
                match rec s1 c1 fe ge vt with
                | None => None
                | Some (s2, c2, e) =>
                  if Nat.eqb min_level vlevel then
                    match apply_bin gt C cget cadd (S (nlevels s2)) s2 c2 (qop q) t e with
                    | None => None
                    | Some (s3, c3, res) =>
                      Some (s3, cadd c3 (aqcode q op) [f; g; vars'] res, res)
                    end
                  else
                    let '(s3, h) := mk_node s2 min_level [E t; E e] in
                    Some (s3, cadd c2 (aqcode q op) [f; g; vars'] (eref h), eref h)
                end
              end
            | _, _, _ => None
            end
          end
      end
    end
  | _, _ => None
  end.

Lemma apply_quant_S : forall n s c q op f g vars,
  apply_quant gt C cget cadd (S n) s c q op f g vars =
    match terminal_bin gt s op f g with
    | TFail => None
    | TNot h =>
      match apply_not C cget cadd (S (nlevels s)) s c h with
      | None => None
      | Some (s1, c1, inverse) => quant_rec gt C cget cadd (S (nlevels s1)) s1 c1 q inverse vars
      end
    | TDone h => quant_rec gt C cget cadd (S (nlevels s)) s c q h vars
    | TBin _ f' g' =>
      aq_body (fun s0 c0 a b v => apply_quant gt C cget cadd n s0 c0 q op a b v) s c q op f' g' vars
    end.
Proof. reflexivity. Qed.

(** the cofactor pair chosen for an operand is [cof2] of DD/Apply.v *)
Lemma pair_is_cof2 : forall (r : ref) (nd : node) (other : nat), nstored nd = nlevel nd ->
  (if Nat.leb (nlevel nd) other
   then match nchildren nd with [t; e] => Some (eref t, eref e) | _ => None end
   else Some (r, r)) = cof2 r nd (Nat.min (nlevel nd) other).
Proof.
  intros r nd other Es. unfold cof2. rewrite Es.
  destruct (Nat.leb_spec (nlevel nd) other) as [Hle|Hgt].
  - rewrite Nat.min_l by exact Hle. rewrite Nat.eqb_refl. reflexivity.
  - rewrite Nat.min_r by lia. destruct (Nat.eqb_spec (nlevel nd) other); [lia | reflexivity].
Qed.

Theorem apply_quant_ok : forall q op fuel s c f g vars phi psi L,
  BddOK s -> QOK s c -> Den s f phi -> Den s g psi -> ref_ok s vars -> VChain s vars L ->
  nlevels s - Nat.min (rlevel s f) (rlevel s g) < fuel ->
  qres s (apply_quant gt C cget cadd fuel s c q op f g vars)
       (qlevs (qf q) L (fun c0 => eval_bop op (phi c0) (psi c0))).
Proof.
  intros q op. induction fuel as [|n IH]; intros s c f g vars phi psi L B Q Df Dg Ov V Hfuel; [lia|].
  pose proof (bo_wf s B) as H.
  rewrite apply_quant_S.
  pose proof (terminal_bin_sound gt s op f g phi psi B Df Dg) as T.
  destruct (terminal_bin gt s op f g) as [h|h|o a b|] eqn:Etb; [| | |contradiction].
  - (* the operator is decided: quantify the result *)
    pose proof (rlevel_le s H h).
    apply (quant_rec_ok gt C cget cadd Hlossy Sg q (S (nlevels s)) s c h vars _ L B Q T Ov V). lia.
  - (* the operator reduces to a negation *)
    destruct T as [_ [rho [Dr Hrho]]].
    destruct (q_apply_not C cget cadd Hlossy Sg s c h rho B Q Dr) as [s1 [c1 [inv [E1 [B1 [X1 [Q1 D1]]]]]]].
    rewrite E1. apply (qresult_ok_trans C cget Sg s s1 _ _ X1).
    apply (qresult_ok_ext C cget Sg s1 _ (qlevs (qf q) L (fun c0 => negb (rho c0)))).
    + pose proof (rlevel_le s1 (bo_wf s1 B1) inv).
      apply (quant_rec_ok gt C cget cadd Hlossy Sg q (S (nlevels s1)) s1 c1 inv vars _ L B1 Q1 D1
               (ext_ref_ok _ _ _ X1 Ov) (vchain_extends _ _ _ _ X1 V)). lia.
    + apply qlevs_ext. intros c0 Hc. symmetry. apply Hrho. exact Hc.
  - (* both operands inner *)
    destruct T as [-> [[idf ->] [[idg ->] Hab]]].
    assert (Core : forall ida idb pa pb, Den s (RN ida) pa -> Den s (RN idb) pb ->
               nlevels s - Nat.min (rlevel s (RN ida)) (rlevel s (RN idb)) < S n ->
               qres s (aq_body (fun s0 c0 a0 b0 v => apply_quant gt C cget cadd n s0 c0 q op a0 b0 v)
                               s c q op (RN ida) (RN idb) vars)
                    (qlevs (qf q) L (fun c0 => eval_bop op (pa c0) (pb c0)))).
    { clear Hab Etb Df Dg phi psi Hfuel idf idg a b.
      intros idf idg phi psi Df Dg Hfuel.
      destruct (proj1 Df) as [fnd Ef]. destruct (proj1 Dg) as [gnd Eg].
      rewrite (rlevel_node s idf fnd Ef), (rlevel_node s idg gnd Eg) in Hfuel.
      pose proof (wf_level s H idf fnd Ef) as Hlf. pose proof (wf_level s H idg gnd Eg) as Hlg.
      unfold aq_body. simpl inner. rewrite Ef, Eg. cbv zeta.
      rewrite (wf_stored s H idf fnd Ef), (wf_stored s H idg gnd Eg).
      set (m := Nat.min (nlevel fnd) (nlevel gnd)) in *.
      set (Phi := fun c0 : nat -> nat => eval_bop op (phi c0) (psi c0)).
      assert (IP : indep Phi m).
      { apply indep_bin; [rewrite <- (rlevel_node s idf fnd Ef); apply (den_indep s _ phi H Df)
                         | rewrite <- (rlevel_node s idg gnd Eg); apply (den_indep s _ psi H Dg)]. }
      assert (XP : cext Phi) by (apply (cext_indep Phi m IP)).
      assert (Hm : m < nlevels s) by lia.
      destruct (pop_ok s q vars L m Phi B Ov V Hm IP) as [vars' [L' [Epop [Ov' [V' [Hge HL]]]]]]. rewrite Epop.
      apply (qresult_ok_ext C cget Sg s _ (qlevs (qf q) L' Phi));
        [|intros c0 Hc; symmetry; apply HL; exact Hc].
      clear HL V Ov L vars Epop.
      destruct vars' as [tv|vid].
      { rewrite (vchain_T_inv s tv L' V'). simpl qlevs.
        apply (q_apply_bin gt C cget cadd Hlossy Sg op s c _ _ phi psi B Q Df Dg). }
      destruct Ov' as [vnd Evn]. rewrite Evn. rewrite (wf_stored s H vid vnd Evn).
      destruct (vchain_N_inv s vid vnd L' V' Evn) as [vt [ve [L'' [_ [EL' _]]]]].
      set (vlvl := nlevel vnd) in *.
      destruct (Nat.ltb vlvl m && is_unique q) eqn:Eu.
      { apply andb_true_iff in Eu. destruct Eu as [Hlt Eq]. apply Nat.ltb_lt in Hlt.
        apply (q_false C cget Sg s c _ B Q). intros c0 Hc. rewrite EL'.
        apply (qlevs_unique_nodep q vlvl L'' Phi Eq XP (indep_nodep Phi m vlvl IP Hlt) c0 Hc). }
      assert (Hvl : m <= vlvl).
      { destruct (is_unique q) eqn:Eq.
        - rewrite andb_true_r in Eu. apply Nat.ltb_ge in Eu. exact Eu.
        - specialize (Hge eq_refl). rewrite (rlevel_node s vid vnd Evn) in Hge. exact Hge. }
      clear Eu Hge.
      destruct (Nat.ltb_spec vlvl m) as [Hbad|_]; [lia|].
      destruct (cget c (aqcode q op) [RN idf; RN idg; RN vid]) as [h|] eqn:Ecache.
      { destruct (proj1 (proj2 (proj2 (proj2 Q _ _ _ Ecache))) q op (RN idf) (RN idg) (RN vid) eq_refl eq_refl)
          as [phi0 [psi0 [L0 [D0 [D0' [V0 Dh]]]]]].
        apply (qresult_ok_here C cget Sg s c _ _ B Q).
        rewrite (vchain_fun s _ _ _ V0 V') in Dh.
        apply (den_ext s h _ _ Dh). apply qlevs_ext. intros c0 Hc. unfold Phi.
        rewrite (den_unique s _ phi0 phi D0 Df c0 Hc), (den_unique s _ psi0 psi D0' Dg c0 Hc).
        reflexivity. }
      destruct (vt_ok s vid vnd L' m B Evn V' Hvl) as [vt' [Lr [Evt [Ovt [Vr [Hnin HLr]]]]]].
      fold vlvl in Evt, HLr. rewrite Evt.
      (* the cofactor pairs *)
      rewrite (pair_is_cof2 (RN idf) fnd (nlevel gnd) (wf_stored s H idf fnd Ef)).
      rewrite (pair_is_cof2 (RN idg) gnd (nlevel fnd) (wf_stored s H idg gnd Eg)).
      rewrite (Nat.min_comm (nlevel gnd) (nlevel fnd)). fold m.
      destruct (cof2_ok s idf fnd phi m B Df Ef ltac:(lia)) as [ft [fe [Ecf [Dft [Dfe [Lft Lfe]]]]]].
      destruct (cof2_ok s idg gnd psi m B Dg Eg ltac:(lia)) as [gt' [ge [Ecg [Dgt [Dge [Lgt Lge]]]]]].
      rewrite Ecf, Ecg.
      apply (quant_step gt C cget cadd Hlossy Sg q s m vlvl L' Lr Phi (aqcode q op) [RN idf; RN idg; RN vid] _
               (fun s1 c1 => apply_quant gt C cget cadd n s1 c1 q op fe ge vt') B Hm IP Hnin HLr).
      + apply (IH s c ft gt' vt' _ _ Lr B Q Dft Dgt Ovt Vr). lia.
      + intros s1 c1 B1 X1 Q1.
        apply (IH s1 c1 fe ge vt' _ _ Lr B1 Q1 (den_extends s s1 _ _ B X1 Dfe) (den_extends s s1 _ _ B X1 Dge)
                 (ext_ref_ok _ _ _ X1 Ovt) (vchain_extends _ _ _ _ X1 Vr)).
        rewrite (ext_nlevels _ _ X1), (ext_rlevel _ _ _ X1 (proj1 Dfe)), (ext_rlevel _ _ _ X1 (proj1 Dge)). lia.
      + apply aqcode_gt.
      + intros s' r X' D'.
        apply (qentry_aq Sg s' q op (RN idf) (RN idg) (RN vid) r phi psi L');
          [apply (den_extends s s' _ _ B X' Df) | apply (den_extends s s' _ _ B X' Dg)
           | apply (vchain_extends _ _ _ _ X' V') | exact D']. }
    destruct Hab as [[-> ->]|[-> [-> Hcomm]]].
    + apply (Core idf idg phi psi Df Dg Hfuel).
    + apply (qresult_ok_ext C cget Sg s _ (qlevs (qf q) L (fun c0 => eval_bop op (psi c0) (phi c0)))).
      * apply (Core idg idf psi phi Dg Df). rewrite Nat.min_comm. exact Hfuel.
      * apply qlevs_ext. intros c0 _. apply Hcomm.
Qed.

End AQ.
