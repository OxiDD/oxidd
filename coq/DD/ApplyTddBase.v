(** * Foundations for the TDD apply proofs (DD/ApplyTdd.v)

    - [TdOK]: the invariant (well-formed TDD table with exactly the three
      terminals False / Unknown / True), decided by [td_ok_b];
    - [chc]: a three-valued assignment by level ([assignment] of DD/Tdd.v) read
      as a choice function of the interpreter [semk] (true -> child 0,
      unknown -> child 1, false -> child 2);
    - [DenT s r phi]: reference [r] of table [s] denotes the three-valued
      function [phi : tfun] ([tfun = (level -> tri) -> tri] of DD/Tdd.v);
    - independence of levels, the three Shannon cofactors ([fn_restrict]), the
      node step ([mk_node] on three children), canonicity inside one table. *)

From Coq Require Import List NArith PArith Bool Arith Lia FMapPositive.
From OxiVerif Require Import DD.Table DD.TableProofs DD.Canon DD.Build DD.BuildProofs
  DD.Apply DD.ApplyProofs DD.Tdd DD.TddTables DD.ApplyTdd.
Import ListNotations.

Notation cupd := TableProofs.upd.
Notation aupd := Tdd.upd.

Lemma ref_eqb_neq : forall x y, ref_eqb x y = false -> x <> y.
Proof. intros x y E Exy. apply ref_eqb_eq in Exy. congruence. Qed.

(** ** The coding of terminal values *)

Lemma tdecode_tcode : forall v, tdecode (tcode v) = Some v.
Proof. intros []; reflexivity. Qed.

Lemma tcode_tdecode : forall c v, tdecode c = Some v -> tcode v = c.
Proof.
  intros c v. destruct c as [|[[p|p|]|[p|p|]|]]; simpl; intros E; inversion E; reflexivity.
Qed.

Lemma tcode_inj : forall a b, tcode a = tcode b -> a = b.
Proof. intros [] [] E; simpl in E; congruence. Qed.

Lemma tcode_le : forall v, (tcode v <= 2)%N.
Proof. intros []; simpl; lia. Qed.

Lemma tdecode_total : forall c, (c <= 2)%N -> exists v, tdecode c = Some v.
Proof.
  intros c Hc. destruct c as [|[[p|p|]|[p|p|]|]]; simpl; eauto; lia.
Qed.

(** ** The invariant *)

Record TdOK (s : snap) : Prop := mkTdOK {
  to_wf : WF s;
  to_kind : s_kind s = KTdd;
  to_codes : forall t c, term_val s t = Some c -> (c <= 2)%N;
  to_terms : forall v, exists t, term_val s t = Some (tcode v)
}.

Lemma terms_code : forall s c, WF s ->
  existsb (fun p : N * N => N.eqb (snd p) c) (s_terms s) = true <-> exists t, term_val s t = Some c.
Proof.
  intros s c H. rewrite existsb_exists. split.
  - intros [[t v] [I Ev]]. apply N.eqb_eq in Ev. simpl in Ev. subst v. exists t.
    apply In_assoc_N; [apply (wf_term_ids s H) | exact I].
  - intros [t Et]. exists (t, c). split; [apply assoc_N_In; exact Et | apply N.eqb_refl].
Qed.

Theorem td_ok_b_spec : forall s, td_ok_b s = true <-> TdOK s.
Proof.
  intros s. unfold td_ok_b. rewrite !andb_true_iff, wf_b_spec, forallb_forall. split.
  - intros [[[[[H Hk] Hc] E0] E1] E2]. constructor; auto.
    + destruct (s_kind s); simpl in Hk; congruence.
    + intros t c E. apply assoc_N_In in E. apply N.leb_le. apply (Hc _ E).
    + intros []; apply (terms_code s _ H); assumption.
  - intros B. pose proof (to_wf s B) as H.
    split; [split; [split; [split; [split|]|]|]|].
    + exact H.
    + rewrite (to_kind s B). reflexivity.
    + intros [t v] Hin. apply N.leb_le. apply (to_codes s B t v).
      apply In_assoc_N; [apply (wf_term_ids s H) | exact Hin].
    + apply (terms_code s _ H), (to_terms s B TF).
    + apply (terms_code s _ H), (to_terms s B TU).
    + apply (terms_code s _ H), (to_terms s B TT).
Qed.

Lemma td_kary : forall s, TdOK s -> kary (s_kind s).
Proof. intros s B. rewrite (to_kind s B). split; discriminate. Qed.

Lemma tdok_extends : forall s s', TdOK s -> extends s s' -> WF s' -> TdOK s'.
Proof.
  intros s s' B X H'. constructor.
  - exact H'.
  - rewrite (ext_kind _ _ X). apply (to_kind s B).
  - intros t c. rewrite (ext_term_val _ _ t X). apply (to_codes s B).
  - intros v. destruct (to_terms s B v) as [t E]. exists t. rewrite (ext_term_val _ _ t X). exact E.
Qed.

Lemma v2l_level : forall s v, WF s -> v < nlevels s ->
  exists l, nth_error (s_v2l s) v = Some l /\ nth_error (s_l2v s) l = Some v /\ l < nlevels s.
Proof.
  intros s v H Hv. unfold nlevels in Hv. rewrite <- (wf_perm_len s H) in Hv.
  destruct (wf_perm_v2l s H v Hv) as [l [E1 E2]]. exists l. split; [exact E1|]. split; [exact E2|].
  apply nth_error_Some. congruence.
Qed.

Lemma l2v_var : forall s l, WF s -> l < nlevels s ->
  exists v, nth_error (s_l2v s) l = Some v /\ nth_error (s_v2l s) v = Some l /\ v < nlevels s.
Proof.
  intros s l H Hl. destruct (wf_perm_l2v s H l Hl) as [v [E1 E2]]. exists v.
  split; [exact E1|]. split; [exact E2|].
  unfold nlevels. rewrite <- (wf_perm_len s H). apply nth_error_Some. congruence.
Qed.

Lemma v2l_some : forall s v l, WF s -> nth_error (s_v2l s) v = Some l ->
  nth_error (s_l2v s) l = Some v /\ l < nlevels s.
Proof.
  intros s v l H E.
  assert (Hv : v < nlevels s)
    by (unfold nlevels; rewrite <- (wf_perm_len s H); apply nth_error_Some; congruence).
  destruct (v2l_level s v H Hv) as [l' [E1 A]]. rewrite E in E1. inversion E1; subst l'. exact A.
Qed.

Lemma l2v_some : forall s l v, WF s -> nth_error (s_l2v s) l = Some v ->
  nth_error (s_v2l s) v = Some l /\ v < nlevels s.
Proof.
  intros s l v H E.
  assert (Hl : l < nlevels s) by (apply nth_error_Some; congruence).
  destruct (l2v_var s l H Hl) as [v' [E1 A]]. rewrite E in E1. inversion E1; subst v'. exact A.
Qed.

(** [get_terminal] *)
Lemma term3_spec : forall s v t, WF s -> term3 s v = Some t -> term_val s t = Some (tcode v).
Proof.
  intros s v t H E. apply rassoc_N_In in E. apply In_assoc_N; [apply (wf_term_ids s H) | exact E].
Qed.

Lemma term3_total : forall s v, TdOK s -> exists t, term3 s v = Some t.
Proof.
  intros s v B. unfold term3. destruct (to_terms s B v) as [t Ht].
  apply assoc_N_In in Ht. eapply rassoc_N_total; eauto.
Qed.

Lemma term3_extends : forall s s' v, extends s s' -> term3 s' v = term3 s v.
Proof. intros s s' v X. unfold term3. rewrite (ext_terms _ _ X). reflexivity. Qed.

(** ** Assignments as choices *)

(** the child a three-valued assignment selects at every level *)
Definition chc (a : assignment) : nat -> nat := fun l => choice_of (a l).

Definition tri_of_choice (i : nat) : tri :=
  match i with 0 => TT | 1 => TU | _ => TF end.

Definition asg_of (c : nat -> nat) : assignment := fun l => tri_of_choice (c l).

Lemma choice_of_lt : forall v, choice_of v < 3.
Proof. intros []; simpl; lia. Qed.

Lemma tri_of_choice_of : forall v, tri_of_choice (choice_of v) = v.
Proof. intros []; reflexivity. Qed.

Lemma choice_of_tri_of : forall i, i < 3 -> choice_of (tri_of_choice i) = i.
Proof. intros [|[|[|k]]] Hi; simpl; try reflexivity; lia. Qed.

Lemma chc_choice_ok : forall s a, TdOK s -> choice_ok s (chc a).
Proof. intros s a B l. rewrite (to_kind s B). apply choice_of_lt. Qed.

Lemma chc_asg_of : forall s c, TdOK s -> choice_ok s c -> forall l, chc (asg_of c) l = c l.
Proof.
  intros s c B Hc l. unfold chc, asg_of. apply choice_of_tri_of.
  specialize (Hc l). rewrite (to_kind s B) in Hc. exact Hc.
Qed.

Lemma chc_upd : forall a l v x, chc (aupd a l v) x = cupd (chc a) l (choice_of v) x.
Proof. intros a l v x. unfold chc, aupd, cupd. destruct (Nat.eqb x l); reflexivity. Qed.

(** ** Denotations *)

Definition DenT (s : snap) (r : ref) (phi : tfun) : Prop :=
  ref_ok s r /\
  forall a : assignment, semk s (S (nlevels s)) r (chc a) = Some (tcode (phi a)).

Lemma dent_ext : forall s r phi phi', DenT s r phi -> (forall a, phi a = phi' a) -> DenT s r phi'.
Proof. intros s r phi phi' [A B] E. split; [exact A|]. intros a. rewrite <- E. auto. Qed.

Lemma dent_unique : forall s r phi phi', DenT s r phi -> DenT s r phi' -> forall a, phi a = phi' a.
Proof.
  intros s r phi phi' [_ A] [_ B] a. apply tcode_inj.
  specialize (A a). specialize (B a). congruence.
Qed.

(** the value of a reference is the code of one of the table's terminals *)
Lemma semk_code3 : forall s, TdOK s -> forall f r c v, semk s f r c = Some v -> (v <= 2)%N.
Proof.
  intros s B. induction f as [|f IH]; intros r c v E.
  - destruct r as [t|id]; [rewrite semk_T in E; apply (to_codes s B t v E) | discriminate].
  - destruct r as [t|id]; [rewrite semk_T in E; apply (to_codes s B t v E)|].
    rewrite semk_S in E. destruct (find_node s id) as [nd|]; [|discriminate].
    destruct (nth_error (nchildren nd) (c (nlevel nd))) as [e|]; [|discriminate].
    eapply IH; eauto.
Qed.

(** every stored reference denotes a function *)
Lemma dent_exists : forall s r, TdOK s -> ref_ok s r -> exists phi, DenT s r phi.
Proof.
  intros s r B Hok.
  exists (fun a => match semk s (S (nlevels s)) r (chc a) with
                   | Some c => match tdecode c with Some v => v | None => TF end
                   | None => TF
                   end).
  split; [exact Hok|]. intros a.
  pose proof (rlevel_le s (to_wf s B) r).
  destruct (semk_total s (to_wf s B) (S (nlevels s)) r (chc a) Hok (chc_choice_ok s a B) ltac:(lia))
    as [v Ev].
  rewrite Ev. destruct (tdecode_total v (semk_code3 s B _ _ _ _ Ev)) as [x Ex].
  rewrite Ex, (tcode_tdecode v x Ex). reflexivity.
Qed.

Lemma dent_extends : forall s s' r phi, TdOK s -> extends s s' -> DenT s r phi -> DenT s' r phi.
Proof.
  intros s s' r phi B X [A D]. split; [apply (ext_ref_ok _ _ _ X A)|].
  intros a. rewrite (ext_nlevels _ _ X), (semk_extends s s' (to_wf s B) X _ _ _ A). auto.
Qed.

Lemma dent_term : forall s t v, term_val s t = Some (tcode v) -> DenT s (RT t) (fn_const v).
Proof. intros s t v E. split; [exists (tcode v); exact E|]. intros a. rewrite semk_T. exact E. Qed.

Lemma dent_const : forall s v t, TdOK s -> term3 s v = Some t -> DenT s (RT t) (fn_const v).
Proof. intros s v t B E. apply dent_term. apply term3_spec; [apply (to_wf s B) | exact E]. Qed.

(** ** [td_view] *)

Lemma td_view_total : forall s r, TdOK s -> ref_ok s r -> exists v, td_view s r = Some v.
Proof.
  intros s [t|id] B [x E]; simpl; rewrite E; [|eauto].
  destruct (tdecode_total x (to_codes s B t x E)) as [v Ev]. rewrite Ev. eauto.
Qed.

Lemma td_view_TVI : forall s r nd, td_view s r = Some (TVI nd) ->
  exists id, r = RN id /\ find_node s id = Some nd.
Proof.
  intros s [t|id] nd; simpl.
  - destruct (term_val s t) as [c|]; [|discriminate]. destruct (tdecode c); discriminate.
  - destruct (find_node s id) as [n|] eqn:E; [|discriminate]. intros Hx. inversion Hx; subst. eauto.
Qed.

Lemma td_view_TVT : forall s r v, td_view s r = Some (TVT v) ->
  exists t, r = RT t /\ term_val s t = Some (tcode v).
Proof.
  intros s [t|id] v; simpl.
  - destruct (term_val s t) as [c|] eqn:E; [|discriminate].
    destruct (tdecode c) as [w|] eqn:Ew; [|discriminate]. intros Hx. inversion Hx; subst.
    exists t. rewrite (tcode_tdecode c v Ew). auto.
  - destruct (find_node s id); discriminate.
Qed.

Lemma td_view_term : forall s t v, term_val s t = Some (tcode v) -> td_view s (RT t) = Some (TVT v).
Proof. intros s t v E. simpl. rewrite E, tdecode_tcode. reflexivity. Qed.

Lemma td_view_node : forall s id nd, find_node s id = Some nd -> td_view s (RN id) = Some (TVI nd).
Proof. intros s id nd E. simpl. rewrite E. reflexivity. Qed.

Lemma view_dent_T : forall s r v phi, DenT s r phi -> td_view s r = Some (TVT v) ->
  forall a, phi a = v.
Proof.
  intros s r v phi [_ D] V a. destruct (td_view_TVT s r v V) as [t [-> E]].
  specialize (D a). rewrite semk_T, E in D. apply tcode_inj. congruence.
Qed.

(** two terminal views of different references carry different values *)
Lemma td_view_T_inj : forall s r1 r2 v, WF s ->
  td_view s r1 = Some (TVT v) -> td_view s r2 = Some (TVT v) -> r1 = r2.
Proof.
  intros s r1 r2 v H V1 V2.
  destruct (td_view_TVT s r1 v V1) as [t1 [-> E1]]. destruct (td_view_TVT s r2 v V2) as [t2 [-> E2]].
  f_equal. apply (term_val_inj s t1 t2 _ H E1 E2).
Qed.

(** ** Independence of the levels above a reference *)

Definition indepT (phi : tfun) (L : nat) : Prop :=
  forall a a', (forall l, L <= l -> a l = a' l) -> phi a = phi a'.

Lemma dent_indep : forall s r phi, WF s -> DenT s r phi -> indepT phi (rlevel s r).
Proof.
  intros s r phi H [_ D] a a' E. apply tcode_inj.
  pose proof (D a) as A. pose proof (D a') as A'.
  rewrite (semk_ext s H _ r (chc a) (chc a')) in A; [congruence|].
  intros l Hl. unfold chc. rewrite (E l Hl). reflexivity.
Qed.

(** in particular a denoted function is extensional *)
Lemma dent_pointwise : forall s r phi a a', WF s -> DenT s r phi ->
  (forall l, a l = a' l) -> phi a = phi a'.
Proof. intros s r phi a a' H D E. apply (dent_indep s r phi H D). intros l _. apply E. Qed.

Lemma indepT_mono : forall phi L L', indepT phi L -> L' <= L -> indepT phi L'.
Proof. intros phi L L' I Hle a a' E. apply I. intros l Hl. apply E. lia. Qed.

Lemma indepT_cof : forall phi L lvl v, indepT phi L -> lvl <= L ->
  indepT (fn_restrict phi lvl v) (S lvl).
Proof.
  intros phi L lvl v I Hle a a' E. unfold fn_restrict. apply I.
  intros l Hl. unfold aupd. destruct (Nat.eqb_spec l lvl); [reflexivity|]. apply E. lia.
Qed.

Lemma indepT_not : forall phi L, indepT phi L -> indepT (fn_not phi) L.
Proof. intros phi L I a a' E. unfold fn_not. rewrite (I a a' E). reflexivity. Qed.

Lemma indepT_bin : forall op phi psi L, indepT phi L -> indepT psi L ->
  indepT (fn_bin op phi psi) L.
Proof.
  intros op phi psi L I1 I2 a a' E. unfold fn_bin. rewrite (I1 a a' E), (I2 a a' E). reflexivity.
Qed.

Lemma indepT_ite : forall phi psi theta L, indepT phi L -> indepT psi L -> indepT theta L ->
  indepT (fn_ite phi psi theta) L.
Proof.
  intros phi psi theta L I1 I2 I3 a a' E. unfold fn_ite.
  rewrite (I1 a a' E), (I2 a a' E), (I3 a a' E). reflexivity.
Qed.

(** setting a level to the value it already has changes nothing *)
Lemma indepT_upd_self : forall phi L a lvl, indepT phi L -> fn_restrict phi lvl (a lvl) a = phi a.
Proof.
  intros phi L a lvl I. unfold fn_restrict. apply I. intros l _. unfold aupd.
  destruct (Nat.eqb_spec l lvl); [subst; reflexivity | reflexivity].
Qed.

Lemma dent_upd_self : forall s r phi a lvl, WF s -> DenT s r phi ->
  fn_restrict phi lvl (a lvl) a = phi a.
Proof. intros s r phi a lvl H D. apply (indepT_upd_self phi _ a lvl (dent_indep s r phi H D)). Qed.

(** ** Canonicity inside one table *)

Lemma dent_canon : forall s r1 r2 phi, TdOK s -> DenT s r1 phi -> DenT s r2 phi -> r1 = r2.
Proof.
  intros s r1 r2 phi B [O1 D1] [O2 D2]. pose proof (to_wf s B) as H.
  apply (canon_kary s H (td_kary s B) r1 r2 O1 O2).
  intros c Hc.
  rewrite (semk_ext s H _ r1 c (chc (asg_of c))) by (intros l _; symmetry; apply (chc_asg_of s c B Hc)).
  rewrite (semk_ext s H _ r2 c (chc (asg_of c))) by (intros l _; symmetry; apply (chc_asg_of s c B Hc)).
  rewrite D1, D2. reflexivity.
Qed.

(** ** Shannon cofactors of a reference *)

Lemma td_children : forall s id nd, TdOK s -> find_node s id = Some nd ->
  exists x y z, nchildren nd = [x; y; z].
Proof.
  intros s id nd B E. pose proof (wf_arity s (to_wf s B) id nd E) as L.
  rewrite (to_kind s B) in L. simpl in L.
  destruct (nchildren nd) as [|x [|y [|z [|w r]]]]; simpl in L; try discriminate. eauto.
Qed.

Lemma td_children3 : forall s id nd, TdOK s -> find_node s id = Some nd ->
  exists t u e, nchildren nd = [E t; E u; E e] /\ ~ (t = u /\ u = e).
Proof.
  intros s id nd B Ef. pose proof (to_wf s B) as H.
  destruct (td_children s id nd B Ef) as [x [y [z Ech]]].
  assert (Tg : forall w, In w (nchildren nd) -> w = E (eref w)).
  { intros [r tg] Hw. unfold E. simpl. f_equal.
    apply (wf_tags s H (proj1 (td_kary s B)) id nd (mkEdge r tg) Ef Hw). }
  rewrite Ech in Tg.
  exists (eref x), (eref y), (eref z).
  rewrite <- (Tg x), <- (Tg y), <- (Tg z) by (simpl; auto). split; [exact Ech|].
  intros [Exy Eyz]. apply (reduced_kary s (td_kary s B) _ (wf_reduced s H id nd Ef)).
  rewrite Ech. intros a b Ha Hb.
  assert (X : forall w, In w [x; y; z] -> w = E (eref x))
    by (intros w Hw; rewrite (Tg w Hw); destruct Hw as [<-|[<-|[<-|[]]]]; congruence).
  rewrite (X a Ha), (X b Hb). reflexivity.
Qed.

Lemma dent_child : forall s id nd v e phi, TdOK s -> DenT s (RN id) phi ->
  find_node s id = Some nd -> nth_error (nchildren nd) (choice_of v) = Some e ->
  DenT s (eref e) (fn_restrict phi (nlevel nd) v).
Proof.
  intros s id nd v e phi B [_ D] E He. pose proof (to_wf s B) as H.
  split; [apply (child_nth s H id nd _ e E He)|].
  intros a. pose proof (child_sem s H id nd _ e (chc a) E He) as S. unfold semn in S. rewrite S.
  unfold fn_restrict. rewrite <- D. apply (semk_ext s H). intros l _. symmetry. apply chc_upd.
Qed.

Lemma dent_children : forall s id nd phi, TdOK s -> DenT s (RN id) phi -> find_node s id = Some nd ->
  exists t u e, nchildren nd = [E t; E u; E e] /\ ~ (t = u /\ u = e) /\
    forall v, let r := match v with TT => t | TU => u | TF => e end in
      DenT s r (fn_restrict phi (nlevel nd) v) /\ nlevel nd < rlevel s r.
Proof.
  intros s id nd phi B D Ef. destruct (td_children3 s id nd B Ef) as [t [u [e [Ech Hne]]]].
  exists t, u, e. split; [exact Ech|]. split; [exact Hne|]. intros v r.
  assert (He : nth_error (nchildren nd) (choice_of v) = Some (E r)) by (rewrite Ech; destruct v; reflexivity).
  split; [apply (dent_child s id nd v (E r) phi B D Ef He) | apply (child_nth s (to_wf s B) id nd _ (E r) Ef He)].
Qed.

(** a reference whose function ignores all levels above [L] sits at level [L]
    or deeper: were its root above [L], its three children would denote the
    function itself and be equal *)
Lemma dent_level : forall s r phi L, TdOK s -> DenT s r phi -> L <= nlevels s ->
  indepT phi L -> L <= rlevel s r.
Proof.
  intros s r phi L B D HL I.
  destruct (le_lt_dec L (rlevel s r)) as [Hle|Hlt]; [exact Hle|]. exfalso.
  destruct r as [t|id]; [simpl in Hlt; lia|].
  destruct (proj1 D) as [nd Ef]. rewrite (rlevel_node s id nd Ef) in Hlt.
  destruct (dent_children s id nd phi B D Ef) as [t [u [e [_ [Hne K]]]]].
  assert (C : forall v r', DenT s r' (fn_restrict phi (nlevel nd) v) -> DenT s r' phi).
  { intros v r' Dr. apply (dent_ext _ _ _ _ Dr). intros a. unfold fn_restrict. apply I.
    intros l Hl. unfold aupd. destruct (Nat.eqb_spec l (nlevel nd)); [lia | reflexivity]. }
  pose proof (C TT t (proj1 (K TT))) as Dt. pose proof (C TU u (proj1 (K TU))) as Du.
  pose proof (C TF e (proj1 (K TF))) as De.
  apply Hne. split; [apply (dent_canon s t u phi B Dt Du) | apply (dent_canon s u e phi B Du De)].
Qed.

Lemma dent_const_term : forall s r v, TdOK s -> DenT s r (fn_const v) ->
  exists t, r = RT t /\ term_val s t = Some (tcode v).
Proof.
  intros s r v B D. pose proof (to_wf s B) as H.
  assert (L : nlevels s <= rlevel s r).
  { apply (dent_level s r _ (nlevels s) B D (le_n _)). intros a a' _. reflexivity. }
  destruct r as [t|id].
  - exists t. split; [reflexivity|].
    pose proof (proj2 D (fun _ => TT)) as E. rewrite semk_T in E. exact E.
  - exfalso. destruct (proj1 D) as [nd E]. rewrite (rlevel_node s id nd E) in L.
    pose proof (wf_level s H id nd E). lia.
Qed.

Lemma dent_skip : forall s r phi lvl v, WF s -> DenT s r phi -> lvl < rlevel s r ->
  DenT s r (fn_restrict phi lvl v).
Proof.
  intros s r phi lvl v H D Hl. apply (dent_ext s r phi); [exact D|].
  intros a. unfold fn_restrict. apply (dent_indep s r phi H D).
  intros l Hle. unfold aupd. destruct (Nat.eqb_spec l lvl); [lia | reflexivity].
Qed.

(** what [td_cof] returns for a reference at or below the split level *)
Lemma td_cof_ok : forall s r x phi lvl, TdOK s -> DenT s r phi -> td_view s r = Some x ->
  lvl <= rlevel s r -> lvl < nlevels s ->
  exists f0 f1 f2, td_cof r x lvl = Some (f0, f1, f2) /\
    DenT s f0 (fn_restrict phi lvl TT) /\ DenT s f1 (fn_restrict phi lvl TU) /\
    DenT s f2 (fn_restrict phi lvl TF) /\
    lvl < rlevel s f0 /\ lvl < rlevel s f1 /\ lvl < rlevel s f2.
Proof.
  intros s r x phi lvl B D V Hle Hl. pose proof (to_wf s B) as H. destruct x as [nd|w].
  - destruct (td_view_TVI s r nd V) as [id [-> E]]. simpl td_cof.
    rewrite (rlevel_node s id nd E) in Hle. rewrite (wf_stored s H id nd E).
    destruct (Nat.eqb_spec (nlevel nd) lvl) as [Heq|Hne].
    + destruct (dent_children s id nd phi B D E) as [x [y [z [Ech [_ K]]]]]. subst lvl.
      exists x, y, z. split; [unfold children3; rewrite Ech; reflexivity|].
      destruct (K TT) as [D0 L0], (K TU) as [D1 L1], (K TF) as [D2 L2]. auto 7.
    + assert (Hlt : lvl < rlevel s (RN id)) by (rewrite (rlevel_node s id nd E); lia).
      exists (RN id), (RN id), (RN id). split; [reflexivity|].
      repeat (split; [apply dent_skip; auto|]). auto.
  - destruct (td_view_TVT s r w V) as [t [-> _]]. simpl td_cof.
    exists (RT t), (RT t), (RT t). split; [reflexivity|].
    repeat (split; [apply dent_skip; auto|]). simpl. auto.
Qed.

(** a level as the code holds it: [None] (= [LevelNo::MAX]) for the level
    [nlevels] of the terminals.  [tlevel] reports [rlevel] in this form, and
    [lmin] is [Nat.min] on it. *)
Definition olevel (N l : nat) : option nat := if Nat.ltb l N then Some l else None.

Lemma lmin_olevel : forall N a b, a <= N -> b <= N ->
  lmin (olevel N a) (olevel N b) = olevel N (Nat.min a b).
Proof.
  intros N a b Ha Hb. unfold olevel.
  destruct (Nat.ltb_spec a N), (Nat.ltb_spec b N), (Nat.ltb_spec (Nat.min a b) N); simpl;
    try lia; try reflexivity; f_equal; lia.
Qed.

Lemma olevel_lt : forall N l, l < N -> olevel N l = Some l.
Proof. intros N l Hl. unfold olevel. rewrite (proj2 (Nat.ltb_lt l N) Hl). reflexivity. Qed.

Lemma tlevel_olevel : forall s r x, WF s -> td_view s r = Some x ->
  tlevel x = olevel (nlevels s) (rlevel s r).
Proof.
  intros s r x H V. destruct x as [nd|w]; simpl.
  - destruct (td_view_TVI s r nd V) as [id [-> E]].
    rewrite (wf_stored s H id nd E), (rlevel_node s id nd E), (olevel_lt _ _ (wf_level s H id nd E)).
    reflexivity.
  - destruct (td_view_TVT s r w V) as [t [-> _]]. unfold olevel. simpl. rewrite Nat.ltb_irrefl.
    reflexivity.
Qed.

Lemma view_inner_level : forall s r x, WF s -> td_view s r = Some x -> is_term x = false ->
  rlevel s r < nlevels s.
Proof.
  intros s r [nd|w] H V Hi; [|discriminate]. destruct (td_view_TVI s r nd V) as [id [-> E]].
  rewrite (rlevel_node s id nd E). apply (wf_level s H id nd E).
Qed.

(** the cofactor of an existing function w.r.t. a level at or above its root exists *)
Lemma dent_cof_exists : forall s r Phi lvl v, TdOK s -> DenT s r Phi ->
  lvl <= rlevel s r -> lvl < nlevels s -> exists r', DenT s r' (fn_restrict Phi lvl v).
Proof.
  intros s r Phi lvl v B D Hle Hl.
  destruct (td_view_total s r B (proj1 D)) as [x V].
  destruct (td_cof_ok s r x Phi lvl B D V Hle Hl) as [f0 [f1 [f2 [_ [D0 [D1 [D2 _]]]]]]].
  destruct v; eauto.
Qed.

(** ** The node step shared by the three algorithms *)

(** the function assembled from three cofactor results *)
Definition pick3 (lvl : nat) (P0 P1 P2 : tfun) : tfun :=
  fun a => match a lvl with TT => P0 a | TU => P1 a | TF => P2 a end.

Lemma node_stepT : forall s lvl t u e P0 P1 P2 s' h, TdOK s -> lvl < nlevels s ->
  DenT s t P0 -> DenT s u P1 -> DenT s e P2 ->
  indepT P0 (S lvl) -> indepT P1 (S lvl) -> indepT P2 (S lvl) ->
  mk_node s lvl [E t; E u; E e] = (s', h) ->
  TdOK s' /\ extends s s' /\ DenT s' (eref h) (pick3 lvl P0 P1 P2).
Proof.
  intros s lvl t u e P0 P1 P2 s' h B Hl Dt Du De I0 I1 I2 Hm.
  pose proof (to_wf s B) as H. pose proof (td_kary s B) as Hk.
  assert (Lt : S lvl <= rlevel s t) by (apply (dent_level s t P0); auto).
  assert (Lu : S lvl <= rlevel s u) by (apply (dent_level s u P1); auto).
  assert (Le : S lvl <= rlevel s e) by (apply (dent_level s e P2); auto).
  assert (Hch : children_ok s lvl [E t; E u; E e]).
  { split; [rewrite (to_kind s B); reflexivity|].
    intros x [<-|[<-|[<-|[]]]]; simpl; (split; [|split; [lia | reflexivity]]);
      [apply (proj1 Dt) | apply (proj1 Du) | apply (proj1 De)]. }
  destruct (mk_node_wf s lvl _ s' h H Hk Hl Hch Hm) as [W [X [O [T [Sold [Sh _]]]]]].
  split; [apply (tdok_extends s s' B X W)|]. split; [exact X|].
  split; [exact O|]. intros a. unfold pick3.
  assert (Ec : chc a lvl = choice_of (a lvl)) by reflexivity.
  destruct (a lvl); simpl in Ec.
  - rewrite (Sh (chc a) 2 (E e) Ec eq_refl). simpl. apply (proj2 De a).
  - rewrite (Sh (chc a) 1 (E u) Ec eq_refl). simpl. apply (proj2 Du a).
  - rewrite (Sh (chc a) 0 (E t) Ec eq_refl). simpl. apply (proj2 Dt a).
Qed.

Lemma pick3_cof : forall Phi L lvl a, indepT Phi L ->
  pick3 lvl (fn_restrict Phi lvl TT) (fn_restrict Phi lvl TU) (fn_restrict Phi lvl TF) a = Phi a.
Proof.
  intros Phi L lvl a I. unfold pick3.
  rewrite <- (indepT_upd_self Phi L a lvl I). destruct (a lvl); reflexivity.
Qed.

(** if the function to be built already has a reference, [mk_node] returns it
    and leaves the table alone *)
Lemma mk_node_stableT : forall s lvl t u e P0 P1 P2 s' h r0, TdOK s -> lvl < nlevels s ->
  DenT s t P0 -> DenT s u P1 -> DenT s e P2 ->
  indepT P0 (S lvl) -> indepT P1 (S lvl) -> indepT P2 (S lvl) ->
  mk_node s lvl [E t; E u; E e] = (s', h) ->
  DenT s r0 (pick3 lvl P0 P1 P2) ->
  s' = s /\ eref h = r0.
Proof.
  intros s lvl t u e P0 P1 P2 s' h r0 B Hl Dt Du De I0 I1 I2 Hm D0.
  destruct (node_stepT s lvl t u e P0 P1 P2 s' h B Hl Dt Du De I0 I1 I2 Hm) as [B' [X Dh]].
  assert (Eh : eref h = r0) by (apply (dent_canon s' _ _ _ B' Dh (dent_extends s s' _ _ B X D0))).
  split; [|exact Eh].
  unfold mk_node in Hm. destruct (all_equal [E t; E u; E e]); [inversion Hm; reflexivity|].
  unfold get_or_insert in Hm. destruct (find_dup s lvl [E t; E u; E e]); inversion Hm; [reflexivity|].
  exfalso. subst h. simpl in Eh. subst r0. destruct (proj1 D0) as [nd En].
  rewrite fresh_id_free in En. discriminate.
Qed.

(** the three cofactors of a function that has a reference have references *)
Lemma pick3_cofs : forall s r0 Phi lvl, TdOK s -> DenT s r0 Phi -> lvl < nlevels s ->
  indepT Phi lvl ->
  exists q0 q1 q2, DenT s q0 (fn_restrict Phi lvl TT) /\ DenT s q1 (fn_restrict Phi lvl TU) /\
                   DenT s q2 (fn_restrict Phi lvl TF).
Proof.
  intros s r0 Phi lvl B D0 Hl J.
  assert (L0 : lvl <= rlevel s r0) by (apply (dent_level s r0 _ lvl B D0 ltac:(lia) J)).
  destruct (dent_cof_exists s r0 _ lvl TT B D0 L0 Hl) as [q0 Dq0].
  destruct (dent_cof_exists s r0 _ lvl TU B D0 L0 Hl) as [q1 Dq1].
  destruct (dent_cof_exists s r0 _ lvl TF B D0 L0 Hl) as [q2 Dq2].
  eauto 7.
Qed.
