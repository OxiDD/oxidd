(** * TDD [eval_edge] on hash-consed tables (DD/ApplyTdd.v: [td_eval],
      [td_eval_walk], [td_eval_walk_packed], [td_level_args])

    - [td_eval_walk_sem]: the walk computes the interpreter [semk];
    - [td_eval_packed_eq]: the walk over the bit-packed [choices: Vec<u32>] (two
      bits per level, [block_set] / [block_get] of DD/Tdd.v) reads back what the
      abstract level |-> child map holds ([pack_choices_init] of
      DD/TddPacked.v is a statement about the vector alone and is reused);
    - [td_eval_ok]: [eval] returns the value of the reference's function under
      the assignment denoted by the argument list (last pair wins, a variable
      that is not mentioned selects child 0 = true);
    - [td_eval_assignment]: for an argument list that gives every variable its
      value under [av] (complete, consistent, any order, repetitions allowed)
      [eval] returns [tfun_of s r av]. *)

From Coq Require Import List NArith PArith Bool Arith Lia FMapPositive.
From OxiVerif Require Import DD.Table DD.TableProofs DD.Canon DD.Build DD.BuildProofs
  DD.Apply DD.ApplyProofs DD.Tdd DD.TddTables DD.TddBasic DD.TddCanon DD.TddEval DD.TddPacked
  DD.ApplyTdd DD.ApplyTddBase DD.ApplyTddProofs DD.ApplyTddIte DD.ApplyTddTop.
Import ListNotations.

(** ** The walk is the interpreter *)

Theorem td_eval_walk_sem : forall s, WF s -> forall fuel r ch,
  td_eval_walk fuel s r ch =
  match semk s fuel r ch with Some c => tdecode c | None => None end.
Proof.
  intros s H. induction fuel as [|n IH]; intros r ch.
  - destruct r as [t|id]; simpl; [|reflexivity].
    rewrite semk_T. reflexivity.
  - destruct r as [t|id]; simpl td_eval_walk.
    + rewrite semk_T. reflexivity.
    + rewrite semk_S. destruct (find_node s id) as [nd|] eqn:En; [|reflexivity].
      rewrite (wf_stored s H id nd En).
      destruct (nth_error (nchildren nd) (ch (nlevel nd))) as [e|]; [apply IH | reflexivity].
Qed.

(** ** The packed vector *)

Lemma td_eval_walk_packed_eq : forall s, WF s -> forall blocks ch,
  repr blocks ch -> nlevels s <= 16 * length blocks ->
  forall fuel r, td_eval_walk_packed fuel s r blocks = td_eval_walk fuel s r ch.
Proof.
  intros s H blocks ch Hr Hn. induction fuel as [|n IH]; intros r.
  - destruct r; reflexivity.
  - destruct r as [t|id]; [reflexivity|]. simpl.
    destruct (find_node s id) as [nd|] eqn:En; [|reflexivity].
    pose proof (wf_level s H id nd En) as Hl. rewrite (wf_stored s H id nd En).
    fold (blk (nlevel nd)). rewrite (Hr (nlevel nd)) by lia. rewrite Nat2N.id.
    destruct (nth_error (nchildren nd) (ch (nlevel nd))) as [e|]; [apply IH | reflexivity].
Qed.

Lemma td_level_args_In : forall s args largs, td_level_args s args = Some largs ->
  forall l x, In (l, x) largs -> exists v, In (v, x) args /\ nth_error (s_v2l s) v = Some l.
Proof.
  intros s. induction args as [|[v0 x0] r IH]; intros largs E l x Hin; simpl in E.
  - inversion E; subst. destruct Hin.
  - destruct (nth_error (s_v2l s) v0) as [l0|] eqn:E0; [|discriminate].
    destruct (td_level_args s r) as [r'|] eqn:Er; [|discriminate]. inversion E; subst. clear E.
    destruct Hin as [Hin|Hin].
    + inversion Hin; subst. exists v0. split; [left; reflexivity | exact E0].
    + destruct (IH r' eq_refl l x Hin) as [v [A B]]. exists v. split; [right; exact A | exact B].
Qed.

Lemma td_level_args_In_rev : forall s args largs, td_level_args s args = Some largs ->
  forall v x l, In (v, x) args -> nth_error (s_v2l s) v = Some l -> In (l, x) largs.
Proof.
  intros s. induction args as [|[v0 x0] r IH]; intros largs E v x l Hin Hv; simpl in E; [destruct Hin|].
  destruct (nth_error (s_v2l s) v0) as [l0|] eqn:E0; [|discriminate].
  destruct (td_level_args s r) as [r'|] eqn:Er; [|discriminate]. inversion E; subst. clear E.
  destruct Hin as [Hin|Hin].
  - inversion Hin; subst. rewrite E0 in Hv. inversion Hv. left. reflexivity.
  - right. apply (IH r' eq_refl v x l Hin Hv).
Qed.

Lemma td_level_args_total : forall s args, WF s ->
  (forall v x, In (v, x) args -> v < nlevels s) -> exists largs, td_level_args s args = Some largs.
Proof.
  intros s args H. induction args as [|[v0 x0] r IH]; intros Hb; simpl; [eauto|].
  destruct (v2l_level s v0 H (Hb v0 x0 (or_introl eq_refl))) as [l0 [E0 _]]. rewrite E0.
  destruct IH as [r' Er]; [intros v x Hin; apply (Hb v x); right; exact Hin|]. rewrite Er. eauto.
Qed.

(** the levels an argument list mentions exist *)
Lemma td_level_args_bound : forall s args largs, WF s -> td_level_args s args = Some largs ->
  forall l x, In (l, x) largs -> l < nlevels s.
Proof.
  intros s args largs H E l x Hin.
  destruct (td_level_args_In s args largs E l x Hin) as [v [_ Ev]].
  apply (v2l_some s v l H Ev).
Qed.

(** the packed vector computes the same as the abstract map *)
Theorem td_eval_packed_eq : forall s r args, WF s -> td_eval s r args = td_eval_abs s r args.
Proof.
  intros s r args H. unfold td_eval, td_eval_abs.
  destruct (td_level_args s args) as [largs|] eqn:El; [|reflexivity].
  destruct (pack_choices_init (nlevels s) largs (td_level_args_bound s args largs H El)) as [H1 H2].
  apply (td_eval_walk_packed_eq s H _ _ H1 H2).
Qed.

(** ** [eval] computes the function of the reference *)

Theorem td_eval_ok : forall s r phi args largs, TdOK s -> DenT s r phi ->
  td_level_args s args = Some largs ->
  td_eval s r args = Some (phi (assignment_of largs (fun _ => TT))).
Proof.
  intros s r phi args largs B D El. pose proof (to_wf s B) as H.
  rewrite (td_eval_packed_eq s r args H). unfold td_eval_abs. rewrite El.
  rewrite (td_eval_walk_sem s H).
  rewrite (semk_ext s H _ r _ (chc (assignment_of largs (fun _ => TT)))).
  - rewrite (proj2 D). apply tdecode_tcode.
  - intros l _. unfold chc. apply set_choices_spec. reflexivity.
Qed.

(** for an argument list that gives every variable its value under [av],
    [eval] returns the value of the reference's function at [av] *)
Theorem td_eval_assignment : forall s r (av : nat -> tri) args, TdOK s -> ref_ok s r ->
  (forall v x, In (v, x) args -> x = av v /\ v < nlevels s) ->
  (forall v, v < nlevels s -> In v (map fst args)) ->
  td_eval s r args = Some (tfun_of s r av).
Proof.
  intros s r av args B Hok Hcons Hall. pose proof (to_wf s B) as H.
  destruct (dent_exists s r B Hok) as [phi D].
  destruct (td_level_args_total s args H (fun v x Hin => proj2 (Hcons v x Hin))) as [largs El].
  rewrite (td_eval_ok s r phi args largs B D El), (tfun_of_den s r phi D). f_equal.
  apply (dent_pointwise s r phi _ _ H D). intros l.
  destruct (in_dec Nat.eq_dec l (map fst largs)) as [Hin|Hnin].
  - apply assignment_of_consistent; [|exact Hin].
    intros l' x Hx. destruct (td_level_args_In s args largs El l' x Hx) as [v [Hv Ev]].
    destruct (Hcons v x Hv) as [-> _].
    unfold lvl_asg. rewrite (proj1 (v2l_some s v l' H Ev)). reflexivity.
  - rewrite assignment_of_notin by exact Hnin. unfold lvl_asg.
    destruct (nth_error (s_l2v s) l) as [v|] eqn:Ev; [|reflexivity]. exfalso. apply Hnin.
    destruct (l2v_some s l v H Ev) as [E2 Hvn].
    specialize (Hall v Hvn). apply in_map_iff in Hall. destruct Hall as [[v0 x0] [Ev0 Hin0]].
    simpl in Ev0. subst v0.
    apply in_map_iff. exists (l, x0). split; [reflexivity|].
    apply (td_level_args_In_rev s args largs El v x0 l Hin0 E2).
Qed.
