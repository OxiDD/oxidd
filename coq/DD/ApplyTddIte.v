(** * Correctness of the TDD if-then-else on hash-consed tables
      (DD/ApplyTdd.v: [td_ite_sc], [td_apply_ite] = [apply_ite_rec] of
      oxidd-rules-tdd/src/apply_rec.rs)

    - [td_ite_sc_sound]: every terminal short-cut taken after the three
      equality tests ([g == h], [f == g], [f == h] all failed) agrees with the FIXED 27-entry table [ite3] of DD/Tdd.v
      (= the rule of the property text, [ite3_is_text]): a returned edge denotes
      [fn_ite phi psi theta]; a rewrite to a binary operator / to negation is
      an identity of the tables; "no short-cut" only if not all three operands
      are terminals;
    - [td_apply_ite_ok]: the result denotes [fn_ite phi psi theta], the table
      is only extended, [TdOK]/[TCacheOK] are preserved, an existing reference
      of the result function is returned unchanged. *)

From Coq Require Import List NArith PArith Bool Arith Lia FMapPositive.
From OxiVerif Require Import DD.Table DD.TableProofs DD.Canon DD.Build DD.BuildProofs
  DD.Apply DD.ApplyProofs DD.Tdd DD.TddTables DD.ApplyTdd DD.ApplyTddBase DD.ApplyTddProofs.
Import ListNotations.

(** ** The terminal short-cuts *)

Definition sc_postT (s : snap) (f g h : ref) (vf vg vh : tview) (phi psi theta : tfun)
    (res : ite_res) : Prop :=
  match res with
  | IDone r => DenT s r (fn_ite phi psi theta)
  | IBin op a b =>
    (a = f /\ b = g /\ forall x, fn_ite phi psi theta x = fn_bin op phi psi x) \/
    (a = f /\ b = h /\ forall x, fn_ite phi psi theta x = fn_bin op phi theta x)
  | INot a => a = f /\ forall x, fn_ite phi psi theta x = fn_not phi x
  | IRec => is_term vf = false \/ is_term vg = false \/ is_term vh = false
  | IFail => False
  end.

Theorem td_ite_sc_sound : forall s f g h vf vg vh phi psi theta, TdOK s ->
  DenT s f phi -> DenT s g psi -> DenT s h theta ->
  td_view s f = Some vf -> td_view s g = Some vg -> td_view s h = Some vh ->
  g <> h -> f <> g -> f <> h ->
  sc_postT s f g h vf vg vh phi psi theta (td_ite_sc s f g h vf vg vh).
Proof.
  intros s f g h vf vg vh phi psi theta B Df Dg Dh Vf Vg Vh Ngh Nfg Nfh.
  pose proof (to_wf s B) as H.
  assert (Ff : forall v, vf = TVT v -> forall a, phi a = v)
    by (intros v -> a; apply (view_dent_T s f v phi Df Vf a)).
  assert (Fg : forall v, vg = TVT v -> forall a, psi a = v)
    by (intros v -> a; apply (view_dent_T s g v psi Dg Vg a)).
  assert (Fh : forall v, vh = TVT v -> forall a, theta a = v)
    by (intros v -> a; apply (view_dent_T s h v theta Dh Vh a)).
  destruct (term3_total s TU B) as [tu Etu].
  pose proof (dent_const s TU tu B Etu) as Du.
  (* two operands with the same terminal view are the same reference *)
  assert (Cgh : forall v, vg = TVT v -> vh = TVT v -> False)
    by (intros v -> ->; apply Ngh, (td_view_T_inj s g h v H Vg Vh)).
  assert (Cfg : forall v, vf = TVT v -> vg = TVT v -> False)
    by (intros v -> ->; apply Nfg, (td_view_T_inj s f g v H Vf Vg)).
  assert (Cfh : forall v, vf = TVT v -> vh = TVT v -> False)
    by (intros v -> ->; apply Nfh, (td_view_T_inj s f h v H Vf Vh)).
  (* a pointwise identity of the table: put in what the views tell, run
     through the values of what is left *)
  Local Ltac pw3T Ff Fg Fh :=
    let a := fresh "a" in
    intros a; unfold fn_ite, fn_bin, fn_not, fn_const; cbv beta;
    try rewrite (Ff _ eq_refl a); try rewrite (Fg _ eq_refl a); try rewrite (Fh _ eq_refl a);
    repeat match goal with |- context [?p a] => destruct (p a) end; reflexivity.
  unfold td_ite_sc. rewrite Etu.
  (* a true or false condition decides without a look at [g] and [h] *)
  destruct vf as [nf|[]];
    [ destruct vg as [ng|[]], vh as [nh|[]] | | destruct vg as [ng|[]], vh as [nh|[]] | ];
    simpl is_term; simpl andb; cbv iota beta; unfold sc_postT;
    try (exfalso; first [ exact (Cgh _ eq_refl eq_refl) | exact (Cfg _ eq_refl eq_refl)
                        | exact (Cfh _ eq_refl eq_refl) ]);
    lazymatch goal with
    | |- DenT _ _ _ =>
        eapply dent_ext; [first [exact Df | exact Dg | exact Dh | exact Du] | pw3T Ff Fg Fh]
    | |- _ \/ _ \/ _ => simpl; tauto
    | |- _ /\ _ \/ _ =>
        first [ left; split; [reflexivity|]; split; [reflexivity|]; pw3T Ff Fg Fh
              | right; split; [reflexivity|]; split; [reflexivity|]; pw3T Ff Fg Fh ]
    | |- _ /\ _ => split; [reflexivity|]; pw3T Ff Fg Fh
    end.
Qed.

Section IteSec.
Variable gt : ref -> ref -> bool.
Variable C : Type.
Variable cget : C -> N -> list ref -> option ref.
Variable cadd : C -> N -> list ref -> ref -> C.
Hypothesis Hlossy : lossy cget cadd.

(** the split level of three operands that are not all terminals *)
Lemma lmin3_level : forall s f g h vf vg vh, WF s ->
  td_view s f = Some vf -> td_view s g = Some vg -> td_view s h = Some vh ->
  (is_term vf = false \/ is_term vg = false \/ is_term vh = false) ->
  lmin (lmin (tlevel vf) (tlevel vg)) (tlevel vh)
  = Some (Nat.min (Nat.min (rlevel s f) (rlevel s g)) (rlevel s h)) /\
  Nat.min (Nat.min (rlevel s f) (rlevel s g)) (rlevel s h) < nlevels s.
Proof.
  intros s f g h vf vg vh H Vf Vg Vh Hi.
  pose proof (rlevel_le s H f) as Lf. pose proof (rlevel_le s H g) as Lg.
  rewrite (tlevel_olevel s f vf H Vf), (tlevel_olevel s g vg H Vg), (tlevel_olevel s h vh H Vh),
    (lmin_olevel _ _ _ Lf Lg), (lmin_olevel _ _ _ (Nat.le_trans _ _ _ (Nat.le_min_l _ _) Lf) (rlevel_le s H h)).
  assert (L : Nat.min (Nat.min (rlevel s f) (rlevel s g)) (rlevel s h) < nlevels s).
  { destruct Hi as [Hi|[Hi|Hi]];
      [pose proof (view_inner_level s f vf H Vf Hi) | pose proof (view_inner_level s g vg H Vg Hi)
      | pose proof (view_inner_level s h vh H Vh Hi)]; lia. }
  split; [apply olevel_lt, L | exact L].
Qed.

Theorem td_apply_ite_ok : forall fuel s c f g h phi psi theta,
  TdOK s -> TCacheOK cget s c -> DenT s f phi -> DenT s g psi -> DenT s h theta ->
  nlevels s - Nat.min (Nat.min (rlevel s f) (rlevel s g)) (rlevel s h) < fuel ->
  tresult_ok C cget s c (td_apply_ite gt C cget cadd fuel s c f g h) (fn_ite phi psi theta).
Proof.
  induction fuel as [|n IH]; intros s c f g h phi psi theta B O Df Dg Dh Hfuel; [lia|].
  pose proof (to_wf s B) as H.
  cbn [td_apply_ite].
  destruct (ref_eqb g h) eqn:Egh.
  { apply ref_eqb_eq in Egh. subst h.
    apply tresult_ok_here; auto. apply (dent_ext s g psi); [exact Dg|].
    intros a. unfold fn_ite. rewrite <- (dent_unique s g psi theta Dg Dh a).
    symmetry. apply ite3_same_branches. }
  destruct (ref_eqb f g) eqn:Efg.
  { apply ref_eqb_eq in Efg. subst g.
    apply (tresult_ok_ext C cget s c _ _ (fn_bin Or phi theta)).
    - intros a. unfold fn_ite. rewrite <- (dent_unique s f phi psi Df Dg a). apply ite3_cond_then.
    - apply (td_apply_bin_ok gt C cget cadd Hlossy Or (S n) s c f h phi theta B O Df Dh). lia. }
  destruct (ref_eqb f h) eqn:Efh.
  { apply ref_eqb_eq in Efh. subst h.
    apply (tresult_ok_ext C cget s c _ _ (fn_bin And phi psi)).
    - intros a. unfold fn_ite. rewrite <- (dent_unique s f phi theta Df Dh a). apply ite3_cond_else.
    - apply (td_apply_bin_ok gt C cget cadd Hlossy And (S n) s c f g phi psi B O Df Dg). lia. }
  destruct (td_view_total s f B (proj1 Df)) as [vf Vf].
  destruct (td_view_total s g B (proj1 Dg)) as [vg Vg].
  destruct (td_view_total s h B (proj1 Dh)) as [vh Vh].
  rewrite Vf, Vg, Vh.
  pose proof (td_ite_sc_sound s f g h vf vg vh phi psi theta B Df Dg Dh Vf Vg Vh
                (ref_eqb_neq _ _ Egh) (ref_eqb_neq _ _ Efg) (ref_eqb_neq _ _ Efh)) as T.
  destruct (td_ite_sc s f g h vf vg vh) as [r|op a b|a| |] eqn:Esc; simpl in T; [| | | |contradiction].
  - apply tresult_ok_here; auto.
  - destruct T as [[-> [-> Hr]]|[-> [-> Hr]]].
    + apply (tresult_ok_ext C cget s c _ _ _ Hr),
        (td_apply_bin_ok gt C cget cadd Hlossy op (S n) s c f g phi psi B O Df Dg). lia.
    + apply (tresult_ok_ext C cget s c _ _ _ Hr),
        (td_apply_bin_ok gt C cget cadd Hlossy op (S n) s c f h phi theta B O Df Dh). lia.
  - destruct T as [-> Hr].
    apply (tresult_ok_ext C cget s c _ _ _ Hr), (td_apply_not_ok C cget cadd Hlossy (S n) s c f phi B O Df). lia.
  - (* no short-cut *)
    destruct (cget c tcode_ite [f; g; h]) as [r|] eqn:Ec.
    { destruct (O _ _ _ Ec eq_refl) as [pa [pb [pc [Da [Db [Dc Dr]]]]]].
      apply tresult_ok_here; auto. apply (dent_ext s r _ _ Dr). intros x. unfold fn_ite.
      rewrite (dent_unique s _ pa phi Da Df x), (dent_unique s _ pb psi Db Dg x),
              (dent_unique s _ pc theta Dc Dh x). reflexivity. }
    destruct (lmin3_level s f g h vf vg vh H Vf Vg Vh T) as [El Hlvl]. rewrite El.
    set (lvl := Nat.min (Nat.min (rlevel s f) (rlevel s g)) (rlevel s h)) in *.
    assert (Hl : lvl <= rlevel s f /\ lvl <= rlevel s g /\ lvl <= rlevel s h) by lia.
    clearbody lvl. destruct Hl as [Hlf [Hlg Hlh]].
    destruct (td_cof_ok s f vf phi lvl B Df Vf Hlf Hlvl)
      as [f0 [f1 [f2 [Ecf [Df0 [Df1 [Df2 [Lf0 [Lf1 Lf2]]]]]]]]].
    destruct (td_cof_ok s g vg psi lvl B Dg Vg Hlg Hlvl)
      as [g0 [g1 [g2 [Ecg [Dg0 [Dg1 [Dg2 [Lg0 [Lg1 Lg2]]]]]]]]].
    destruct (td_cof_ok s h vh theta lvl B Dh Vh Hlh Hlvl)
      as [h0 [h1 [h2 [Ech [Dh0 [Dh1 [Dh2 [Lh0 [Lh1 Lh2]]]]]]]]].
    rewrite Ecf, Ecg, Ech.
    assert (J : indepT (fn_ite phi psi theta) lvl).
    { apply indepT_ite; [apply (indepT_mono phi _ lvl (dent_indep s f phi H Df) Hlf)
                        | apply (indepT_mono psi _ lvl (dent_indep s g psi H Dg) Hlg)
                        | apply (indepT_mono theta _ lvl (dent_indep s h theta H Dh) Hlh)]. }
    assert (K : forall v fv gv hv, DenT s fv (fn_restrict phi lvl v) ->
              DenT s gv (fn_restrict psi lvl v) -> DenT s hv (fn_restrict theta lvl v) ->
              lvl < rlevel s fv -> lvl < rlevel s gv -> lvl < rlevel s hv ->
              call_ok C cget s lvl (fn_ite phi psi theta) v
                (fun s' c' => td_apply_ite gt C cget cadd n s' c' fv gv hv)).
    { intros v fv gv hv Dfv Dgv Dhv Lf Lg Lh s' c' B' X' O'.
      apply (IH s' c' fv gv hv _ _ _ B' O' (dent_extends s s' _ _ B X' Dfv)
               (dent_extends s s' _ _ B X' Dgv) (dent_extends s s' _ _ B X' Dhv)).
      rewrite (ext_nlevels _ _ X'), (ext_rlevel _ _ _ X' (proj1 Dfv)),
              (ext_rlevel _ _ _ X' (proj1 Dgv)), (ext_rlevel _ _ _ X' (proj1 Dhv)). lia. }
    apply (expand_ok C cget cadd Hlossy s c lvl (fn_ite phi psi theta) tcode_ite [f; g; h] _ _ _ B O Hlvl J
             (K TT f0 g0 h0 Df0 Dg0 Dh0 Lf0 Lg0 Lh0) (K TU f1 g1 h1 Df1 Dg1 Dh1 Lf1 Lg1 Lh1)
             (K TF f2 g2 h2 Df2 Dg2 Dh2 Lf2 Lg2 Lh2)).
    intros s4 r X04 Dr _. exists phi, psi, theta.
    split; [apply (dent_extends s s4 _ _ B X04 Df)|].
    split; [apply (dent_extends s s4 _ _ B X04 Dg)|].
    split; [apply (dent_extends s s4 _ _ B X04 Dh) | exact Dr].
Qed.

End IteSec.
