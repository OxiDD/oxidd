(** * Correctness of the TDD apply algorithms on hash-consed tables, part 1:
      [terminal_bin], the apply cache, [apply_not], [apply_bin]
      (DD/ApplyTdd.v: [td_tb], [td_apply_not], [td_apply_bin])

    - [td_tb_sound]: every arm of [terminal_bin] (8 operators, [f == g]
      short-cuts, terminal short-cuts, operand normalisation) agrees with the
      operator's FIXED TABLE [table op] of DD/Tdd.v: a finished result denotes
      [fn_bin op phi psi]; a [Not] result names an operand whose negation is the
      table's value; a [Binary] result carries the operator that was asked for,
      not both operands are terminals, and the operands are as given or - only
      for a commutative table - swapped;
    - [TCacheOK]: every entry a cache can serve is semantically correct: the
      key (operator code, operands) determines the pointwise meaning of the
      memoised value;
    - [expand_ok]: the expansion step of all three algorithms (three recursive
      calls on the cofactors threaded through table and cache, [reduce], cache
      insertion) for an arbitrary result function, each call yielding its
      cofactor [fn_restrict Phi lvl v];
    - [td_apply_not_ok], [td_apply_bin_ok] ([tresult_ok]): with fuel above the
      height the algorithms return (never [None]) a table that only extends
      the old one, [TdOK] and [TCacheOK] again, and a reference denoting
      [fn_not phi] resp. [fn_bin op phi psi] - for every cache implementation
      that only ever serves what was added ([lossy]) and every edge order; if
      the result function already has a reference, this reference is returned
      and the table is unchanged. *)

From Coq Require Import List NArith PArith Bool Arith Lia FMapPositive.
From OxiVerif Require Import DD.Table DD.TableProofs DD.Canon DD.Build DD.BuildProofs
  DD.Apply DD.ApplyProofs DD.Tdd DD.TddTables DD.ApplyTdd DD.ApplyTddBase.
Import ListNotations.

(** ** Scalar facts about the fixed tables used below *)

Lemma top_code_inj : forall o o', top_code o = top_code o' -> o = o'.
Proof. intros [] [] E; simpl in E; try discriminate; reflexivity. Qed.

Lemma top_code_not : forall o, top_code o <> tcode_not.
Proof. intros [] E; discriminate. Qed.

(** ** Every arm of [terminal_bin] *)

Section TB.
Variable gt : ref -> ref -> bool.

Definition tb_postT (s : snap) (op : binop) (f g : ref) (vf vg : tview) (phi psi : tfun)
    (res : td_res) : Prop :=
  match res with
  | DDone r => DenT s r (fn_bin op phi psi)
  | DNot r =>
    (r = f /\ forall a, fn_bin op phi psi a = k_not (phi a)) \/
    (r = g /\ forall a, fn_bin op phi psi a = k_not (psi a))
  | DBin o a b =>
    o = op /\ (is_term vf = false \/ is_term vg = false) /\ f <> g /\
    ((a = f /\ b = g) \/ (a = g /\ b = f /\ commutative op = true))
  | DFail => False
  end.

Lemma get_term3_den : forall s v, TdOK s ->
  match get_term3 s v with DDone r => DenT s r (fn_const v) | _ => False end.
Proof.
  intros s v B. unfold get_term3. destruct (term3_total s v B) as [t E]. rewrite E.
  apply dent_const; assumption.
Qed.

Lemma is_tv_den : forall s r x phi v, DenT s r phi -> td_view s r = Some x -> is_tv v x = true ->
  forall a, phi a = v.
Proof.
  intros s r [nd|w] phi v D V E; [discriminate|]. apply tri_eqb_eq in E. subst w.
  apply (view_dent_T s r v phi D V).
Qed.

(** two different operands on which all four terminal tests fail are not both
    terminals (they would both be the Unknown terminal) *)
Lemma view_tests_fail : forall s f g vf vg, WF s -> td_view s f = Some vf -> td_view s g = Some vg ->
  f <> g -> is_tv TF vf = false -> is_tv TF vg = false -> is_tv TT vf = false -> is_tv TT vg = false ->
  is_term vf = false \/ is_term vg = false.
Proof.
  intros s f g [nf|[]] [ng|[]] H Vf Vg Hne; simpl; try discriminate; auto.
  intros _ _ _ _. exfalso. apply Hne, (td_view_T_inj s f g TU H Vf Vg).
Qed.

Theorem td_tb_sound : forall s op f g vf vg phi psi, TdOK s ->
  DenT s f phi -> DenT s g psi -> td_view s f = Some vf -> td_view s g = Some vg ->
  tb_postT s op f g vf vg phi psi (td_tb gt s op f g vf vg).
Proof.
  intros s op f g vf vg phi psi B Hf Hg Vf Vg.
  pose proof (fun v => is_tv_den s f vf phi v Hf Vf) as Kf.
  pose proof (fun v => is_tv_den s g vg psi v Hg Vg) as Kg.
  assert (Fe : ref_eqb f g = true -> forall a, phi a = psi a).
  { intros E a. apply ref_eqb_eq in E. subst g. apply (dent_unique s f phi psi Hf Hg a). }
  pose proof (ref_eqb_neq f g) as Fn.
  pose proof (view_tests_fail s f g vf vg (to_wf s B) Vf Vg) as Kn.
  pose proof (get_term3_den s TF B) as Ht0. pose proof (get_term3_den s TT B) as Ht2.
  (* a pointwise identity of the table: put in what the test that succeeded
     (or [f == g]) tells, run through the values of what is left *)
  Local Ltac pwT Kf Kg Fe vf vg :=
    let a := fresh "a" in
    intros a; unfold fn_bin, fn_const; cbv beta;
    try match goal with E : is_tv _ vf = true |- _ => rewrite (Kf _ E a) end;
    try match goal with E : is_tv _ vg = true |- _ => rewrite (Kg _ E a) end;
    try rewrite (Fe eq_refl a);
    repeat match goal with |- context [?p a] => destruct (p a) end; reflexivity.
  (* the arm reached: by the kind of its result *)
  Local Ltac armT Kf Kg Fe Fn Kn vf vg Hf Hg Ht0 Ht2 gt :=
    lazymatch goal with
    | |- tb_postT _ _ _ _ _ _ _ _ (get_term3 _ TF) =>
        unfold tb_postT; destruct (get_term3 _ TF); try contradiction;
        eapply dent_ext; [exact Ht0 | pwT Kf Kg Fe vf vg]
    | |- tb_postT _ _ _ _ _ _ _ _ (get_term3 _ TT) =>
        unfold tb_postT; destruct (get_term3 _ TT); try contradiction;
        eapply dent_ext; [exact Ht2 | pwT Kf Kg Fe vf vg]
    | |- tb_postT _ _ _ _ _ _ _ _ (DDone _) =>
        unfold tb_postT;
        eapply dent_ext; [first [exact Hf | exact Hg] | pwT Kf Kg Fe vf vg]
    | |- tb_postT _ _ _ _ _ _ _ _ (DNot _) =>
        unfold tb_postT;
        first [ left; split; [reflexivity | pwT Kf Kg Fe vf vg]
              | right; split; [reflexivity | pwT Kf Kg Fe vf vg] ]
    | |- tb_postT _ _ _ _ _ _ _ _ (td_norm _ _ _ _) =>
        unfold td_norm; destruct (gt _ _); unfold tb_postT;
        (split; [reflexivity|]; split; [exact (Kn (Fn eq_refl) eq_refl eq_refl eq_refl eq_refl)|];
         split; [apply Fn; reflexivity|]);
        [ right; split; [reflexivity|]; split; reflexivity
        | left; split; reflexivity ]
    | |- tb_postT _ _ _ _ _ _ _ _ (DBin _ _ _) =>
        unfold tb_postT;
        split; [reflexivity|]; split; [exact (Kn (Fn eq_refl) eq_refl eq_refl eq_refl eq_refl)|];
        split; [apply Fn; reflexivity|]; left; split; reflexivity
    end.
  (* down the tests of an operator, in the order of the code *)
  Local Ltac walkT arm :=
    cbn [orb]; cbv iota;
    lazymatch goal with
    | |- tb_postT _ _ _ _ _ _ _ _ (if ?c then _ else _) =>
        lazymatch c with
        | orb (is_tv ?v ?x) _ => destruct (is_tv v x) eqn:?
        | is_tv ?v ?x => destruct (is_tv v x) eqn:?
        | ref_eqb ?x ?y => destruct (ref_eqb x y) eqn:?
        end; walkT arm
    | |- _ => arm
    end.
  destruct op; unfold td_tb; walkT ltac:(idtac; armT Kf Kg Fe Fn Kn vf vg Hf Hg Ht0 Ht2 gt).
Qed.

End TB.

(** ** Caches *)

Section CacheSec.
Variable gt : ref -> ref -> bool.
Variable C : Type.
Variable cget : C -> N -> list ref -> option ref.
Variable cadd : C -> N -> list ref -> ref -> C.
Hypothesis Hlossy : lossy cget cadd.

(** an entry is correct in table [s]: the key determines the pointwise
    meaning of the value *)
Definition tentry_ok (s : snap) (code : N) (args : list ref) (r : ref) : Prop :=
  match args with
  | [f] => code = tcode_not ->
      exists phi, DenT s f phi /\ DenT s r (fn_not phi)
  | [f; g] => forall o, code = top_code o ->
      exists phi psi, DenT s f phi /\ DenT s g psi /\ DenT s r (fn_bin o phi psi)
  | [f; g; h] => code = tcode_ite ->
      exists phi psi theta, DenT s f phi /\ DenT s g psi /\ DenT s h theta /\
                            DenT s r (fn_ite phi psi theta)
  | _ => True
  end.

Definition TCacheOK (s : snap) (c : C) : Prop :=
  forall code args r, cget c code args = Some r -> tentry_ok s code args r.

Lemma tentry_ok_extends : forall s s' code args r, TdOK s -> extends s s' ->
  tentry_ok s code args r -> tentry_ok s' code args r.
Proof.
  intros s s' code args r B X. unfold tentry_ok.
  destruct args as [|f [|g [|h [|x rest]]]]; auto.
  - intros Hx Hc. destruct (Hx Hc) as [phi [A D]]. exists phi.
    split; eapply dent_extends; eauto.
  - intros Hx o Hc. destruct (Hx o Hc) as [phi [psi [A [A' D]]]]. exists phi, psi.
    repeat split; eapply dent_extends; eauto.
  - intros Hx Hc. destruct (Hx Hc) as [phi [psi [theta [A [A' [A'' D]]]]]]. exists phi, psi, theta.
    repeat split; eapply dent_extends; eauto.
Qed.

Lemma tcacheok_extends : forall s s' c, TdOK s -> extends s s' -> TCacheOK s c -> TCacheOK s' c.
Proof. intros s s' c B X O code args r E. eapply tentry_ok_extends; eauto. Qed.

Lemma tcacheok_add : forall s c code args r, TCacheOK s c -> tentry_ok s code args r ->
  TCacheOK s (cadd c code args r).
Proof.
  intros s c code args r O Hn code' args' r' E.
  destruct (Hlossy _ _ _ _ _ _ _ E) as [[-> [-> ->]]|E']; [exact Hn | apply (O _ _ _ E')].
Qed.

Definition tresult_ok (s : snap) (c : C) (res : option (snap * C * ref)) (Phi : tfun) : Prop :=
  exists s' c' r, res = Some (s', c', r) /\
    TdOK s' /\ extends s s' /\ TCacheOK s' c' /\ DenT s' r Phi /\
    (* if the result function already has a reference, that reference is
       returned and the table is unchanged *)
    (forall r0, DenT s r0 Phi -> s' = s /\ r = r0).

Lemma tresult_ok_ext : forall s c res Phi Phi', (forall a, Phi a = Phi' a) ->
  tresult_ok s c res Phi' -> tresult_ok s c res Phi.
Proof.
  intros s c res Phi Phi' Hp [s' [c' [r [E [B [X [O [D S]]]]]]]].
  exists s', c', r. split; [exact E|]. split; [exact B|]. split; [exact X|]. split; [exact O|].
  split; [apply (dent_ext s' r Phi' Phi D); intros a; symmetry; apply Hp|].
  intros r0 D0. apply S. apply (dent_ext s r0 Phi Phi' D0 Hp).
Qed.

Lemma tresult_ok_here : forall s c r Phi, TdOK s -> TCacheOK s c -> DenT s r Phi ->
  tresult_ok s c (Some (s, c, r)) Phi.
Proof.
  intros s c r Phi B O D. exists s, c, r.
  split; [reflexivity|]. split; [exact B|]. split; [apply extends_refl|]. split; [exact O|].
  split; [exact D|]. intros r0 D0. split; [reflexivity | apply (dent_canon s r r0 Phi B D D0)].
Qed.

Definition call_ok (s : snap) (lvl : nat) (Phi : tfun) (v : tri)
    (call : snap -> C -> option (snap * C * ref)) : Prop :=
  forall s' c', TdOK s' -> extends s s' -> TCacheOK s' c' ->
    tresult_ok s' c' (call s' c') (fn_restrict Phi lvl v).

Lemma expand_ok : forall s (c : C) lvl (Phi : tfun) code args call0 call1 call2,
  TdOK s -> TCacheOK s c -> lvl < nlevels s -> indepT Phi lvl ->
  call_ok s lvl Phi TT call0 -> call_ok s lvl Phi TU call1 -> call_ok s lvl Phi TF call2 ->
  (forall s4 r, extends s s4 -> DenT s4 r Phi -> tentry_ok s4 code args r) ->
  tresult_ok s c
    match call0 s c with
    | None => None
    | Some (s1, c1, t) =>
      match call1 s1 c1 with
      | None => None
      | Some (s2, c2, u) =>
        match call2 s2 c2 with
        | None => None
        | Some (s3, c3, e) =>
          let '(s4, h) := mk_node s3 lvl [E t; E u; E e] in
          Some (s4, cadd c3 code args (eref h), eref h)
        end
      end
    end Phi.
Proof.
  intros s c lvl Phi code args call0 call1 call2 B O Hlvl J K0 K1 K2 Hent.
  destruct (K0 s c B (extends_refl s) O) as [s1 [c1 [t [-> [B1 [X1 [O1 [D1 S1]]]]]]]].
  destruct (K1 s1 c1 B1 X1 O1) as [s2 [c2 [u [-> [B2 [X2 [O2 [D2 S2]]]]]]]].
  pose proof (extends_trans _ _ _ X1 X2) as X02.
  destruct (K2 s2 c2 B2 X02 O2) as [s3 [c3 [e [-> [B3 [X3 [O3 [D3 S3]]]]]]]].
  pose proof (extends_trans _ _ _ X02 X3) as X03.
  destruct (mk_node s3 lvl [E t; E u; E e]) as [s4 h] eqn:Em.
  assert (II : forall v, indepT (fn_restrict Phi lvl v) (S lvl))
    by (intros v; apply (indepT_cof Phi lvl lvl v J (le_n _))).
  pose proof (dent_extends s1 s3 _ _ B1 (extends_trans _ _ _ X2 X3) D1) as D1'.
  pose proof (dent_extends s2 s3 _ _ B2 X3 D2) as D2'.
  assert (Hl3 : lvl < nlevels s3) by (rewrite (ext_nlevels _ _ X03); exact Hlvl).
  destruct (node_stepT s3 lvl t u e _ _ _ s4 h B3 Hl3 D1' D2' D3 (II TT) (II TU) (II TF) Em)
    as [B4 [X4 Dh]].
  pose proof (extends_trans _ _ _ X03 X4) as X04.
  assert (Dres : DenT s4 (eref h) Phi)
    by (apply (dent_ext _ _ _ _ Dh); intros a; apply (pick3_cof Phi lvl lvl a J)).
  exists s4, (cadd c3 code args (eref h)), (eref h).
  split; [reflexivity|]. split; [exact B4|]. split; [exact X04|].
  split; [apply tcacheok_add; [apply (tcacheok_extends s3 s4 c3 B3 X4 O3) | apply (Hent s4 _ X04 Dres)]|].
  split; [exact Dres|].
  (* the result exists already: so do its cofactors, every call returns them
     unchanged, and [reduce] finds the node *)
  intros r0 D0.
  destruct (pick3_cofs s r0 Phi lvl B D0 Hlvl J) as [q0 [q1 [q2 [Q0 [Q1 Q2]]]]].
  destruct (S1 q0 Q0) as [-> ->]. destruct (S2 q1 Q1) as [-> ->]. destruct (S3 q2 Q2) as [-> ->].
  apply (mk_node_stableT s lvl q0 q1 q2 _ _ _ s4 h r0 B Hlvl D1' D2' D3 (II TT) (II TU) (II TF) Em).
  apply (dent_ext s r0 _ _ D0). intros a. symmetry. apply (pick3_cof Phi lvl lvl a J).
Qed.

(** ** [apply_not] *)

Theorem td_apply_not_ok : forall fuel s c f phi,
  TdOK s -> TCacheOK s c -> DenT s f phi -> nlevels s - rlevel s f < fuel ->
  tresult_ok s c (td_apply_not C cget cadd fuel s c f) (fn_not phi).
Proof.
  induction fuel as [|n IH]; intros s c f phi B O D Hf; [lia|].
  pose proof (to_wf s B) as H.
  cbn [td_apply_not].
  destruct (td_view_total s f B (proj1 D)) as [x V]. rewrite V. destruct x as [nd|v].
  2:{ destruct (term3_total s (k_not v) B) as [t' Et]. rewrite Et.
      apply tresult_ok_here; auto.
      apply (dent_ext s (RT t') (fn_const (k_not v))); [apply dent_const; auto|].
      intros a. unfold fn_not, fn_const. rewrite (view_dent_T s f v phi D V a). reflexivity. }
  destruct (td_view_TVI s f nd V) as [id [-> E]].
  rewrite (rlevel_node s id nd E) in Hf. pose proof (wf_level s H id nd E) as Hlv.
  destruct (cget c tcode_not [RN id]) as [h|] eqn:Eg.
  { destruct (O _ _ _ Eg eq_refl) as [phi' [D' Dh]].
    apply tresult_ok_here; auto. apply (dent_ext s h _ _ Dh). intros a. unfold fn_not.
    rewrite (dent_unique s (RN id) phi' phi D' D a). reflexivity. }
  destruct (dent_children s id nd phi B D E) as [x [y [z [Ech [_ Kc]]]]].
  unfold children3. rewrite Ech, (wf_stored s H id nd E).
  assert (Ip : indepT phi (nlevel nd))
    by (rewrite <- (rlevel_node s id nd E); apply (dent_indep s _ phi H D)).
  assert (K : forall v fv, DenT s fv (fn_restrict phi (nlevel nd) v) /\ nlevel nd < rlevel s fv ->
            call_ok s (nlevel nd) (fn_not phi) v (fun s' c' => td_apply_not C cget cadd n s' c' fv)).
  { intros v fv [Dv Lv] s' c' B' X' O'.
    apply (IH s' c' fv _ B' O' (dent_extends s s' _ _ B X' Dv)).
    rewrite (ext_nlevels _ _ X'), (ext_rlevel _ _ _ X' (proj1 Dv)). lia. }
  apply (expand_ok s c (nlevel nd) (fn_not phi) tcode_not [RN id] _ _ _ B O Hlv (indepT_not phi _ Ip)
           (K TT _ (Kc TT)) (K TU _ (Kc TU)) (K TF _ (Kc TF))).
  intros s4 r X04 Dr _. exists phi. split; [apply (dent_extends s s4 _ _ B X04 D) | exact Dr].
Qed.

(** ** [apply_bin] *)

(** the split level of two operands that are not both terminals *)
Lemma lmin_level : forall s f g vf vg, WF s -> td_view s f = Some vf -> td_view s g = Some vg ->
  (is_term vf = false \/ is_term vg = false) ->
  lmin (tlevel vf) (tlevel vg) = Some (Nat.min (rlevel s f) (rlevel s g)) /\
  Nat.min (rlevel s f) (rlevel s g) < nlevels s.
Proof.
  intros s f g vf vg H Vf Vg Hi.
  rewrite (tlevel_olevel s f vf H Vf), (tlevel_olevel s g vg H Vg),
    (lmin_olevel _ _ _ (rlevel_le s H f) (rlevel_le s H g)).
  assert (L : Nat.min (rlevel s f) (rlevel s g) < nlevels s).
  { destruct Hi as [Hi|Hi];
      [pose proof (view_inner_level s f vf H Vf Hi) | pose proof (view_inner_level s g vg H Vg Hi)]; lia. }
  split; [apply olevel_lt, L | exact L].
Qed.

Theorem td_apply_bin_ok : forall op fuel s c f g phi psi,
  TdOK s -> TCacheOK s c -> DenT s f phi -> DenT s g psi ->
  nlevels s - Nat.min (rlevel s f) (rlevel s g) < fuel ->
  tresult_ok s c (td_apply_bin gt C cget cadd fuel s c op f g) (fn_bin op phi psi).
Proof.
  intros op. induction fuel as [|n IH]; intros s c f g phi psi B O Df Dg Hfuel; [lia|].
  pose proof (to_wf s B) as H.
  cbn [td_apply_bin].
  destruct (td_view_total s f B (proj1 Df)) as [vf Vf]. destruct (td_view_total s g B (proj1 Dg)) as [vg Vg].
  rewrite Vf, Vg.
  pose proof (td_tb_sound gt s op f g vf vg phi psi B Df Dg Vf Vg) as T.
  destruct (td_tb gt s op f g vf vg) as [r|r|o a b|] eqn:Etb; simpl in T; [| | |contradiction].
  - apply tresult_ok_here; auto.
  - destruct T as [[-> Hr]|[-> Hr]].
    + apply (tresult_ok_ext s c _ _ _ Hr), (td_apply_not_ok (S n) s c f phi B O Df). lia.
    + apply (tresult_ok_ext s c _ _ _ Hr), (td_apply_not_ok (S n) s c g psi B O Dg). lia.
  - destruct T as [-> [Hin [Hne Hab]]].
    destruct (cget c (top_code op) [a; b]) as [h|] eqn:Ec.
    + (* cache hit *)
      destruct (O _ _ _ Ec op eq_refl) as [pa [pb [Da [Db Dh]]]].
      apply tresult_ok_here; auto. apply (dent_ext s h _ _ Dh). intros x. unfold fn_bin.
      destruct Hab as [[-> ->]|[-> [-> Hcomm]]].
      * rewrite (dent_unique s _ pa phi Da Df x), (dent_unique s _ pb psi Db Dg x). reflexivity.
      * rewrite (dent_unique s _ pa psi Da Dg x), (dent_unique s _ pb phi Db Df x).
        apply table_comm. exact Hcomm.
    + destruct (lmin_level s f g vf vg H Vf Vg Hin) as [El Hlvl]. rewrite El.
      pose proof (Nat.le_min_l (rlevel s f) (rlevel s g)) as Hlf.
      pose proof (Nat.le_min_r (rlevel s f) (rlevel s g)) as Hlg.
      set (lvl := Nat.min (rlevel s f) (rlevel s g)) in *. clearbody lvl.
      destruct (td_cof_ok s f vf phi lvl B Df Vf Hlf Hlvl)
        as [f0 [f1 [f2 [Ecf [Df0 [Df1 [Df2 [Lf0 [Lf1 Lf2]]]]]]]]].
      destruct (td_cof_ok s g vg psi lvl B Dg Vg Hlg Hlvl)
        as [g0 [g1 [g2 [Ecg [Dg0 [Dg1 [Dg2 [Lg0 [Lg1 Lg2]]]]]]]]].
      rewrite Ecf, Ecg.
      assert (J : indepT (fn_bin op phi psi) lvl).
      { apply indepT_bin; [apply (indepT_mono phi _ lvl (dent_indep s f phi H Df) Hlf)
                          | apply (indepT_mono psi _ lvl (dent_indep s g psi H Dg) Hlg)]. }
      assert (K : forall v fv gv, DenT s fv (fn_restrict phi lvl v) -> DenT s gv (fn_restrict psi lvl v) ->
                lvl < rlevel s fv -> lvl < rlevel s gv ->
                call_ok s lvl (fn_bin op phi psi) v
                  (fun s' c' => td_apply_bin gt C cget cadd n s' c' op fv gv)).
      { intros v fv gv Dfv Dgv Lf Lg s' c' B' X' O'.
        apply (IH s' c' fv gv _ _ B' O' (dent_extends s s' _ _ B X' Dfv) (dent_extends s s' _ _ B X' Dgv)).
        rewrite (ext_nlevels _ _ X'), (ext_rlevel _ _ _ X' (proj1 Dfv)), (ext_rlevel _ _ _ X' (proj1 Dgv)).
        lia. }
      apply (expand_ok s c lvl (fn_bin op phi psi) (top_code op) [a; b] _ _ _ B O Hlvl J
               (K TT f0 g0 Df0 Dg0 Lf0 Lg0) (K TU f1 g1 Df1 Dg1 Lf1 Lg1) (K TF f2 g2 Df2 Dg2 Lf2 Lg2)).
      intros s4 r X04 Dr o Ho. apply top_code_inj in Ho. subst o.
      pose proof (dent_extends s s4 _ _ B X04 Df) as Df4.
      pose proof (dent_extends s s4 _ _ B X04 Dg) as Dg4.
      destruct Hab as [[-> ->]|[-> [-> Hcomm]]].
      * exists phi, psi. auto.
      * exists psi, phi. split; [exact Dg4|]. split; [exact Df4|].
        apply (dent_ext _ _ _ _ Dr). intros x. unfold fn_bin. apply table_comm. exact Hcomm.
Qed.

End CacheSec.

Arguments TCacheOK {C}.
Arguments tentry_ok s code args r : simpl never.
