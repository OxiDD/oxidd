(** * TDD operations on hash-consed tables: constants, variables, cofactors,
      the theorems in terms of the interpreter [semk] and of three-valued
      assignments of the VARIABLES, cache transparency, history independence

    - [td_const_ok], [td_var_ok], [td_cofactors_ok];
    - [td_apply_not_sound], [td_apply_bin_sound], [td_apply_ite_sound]: for
      every [TdOK] table, correct cache of any [lossy] implementation, edge
      order and fuel >= [FUEL s], the operations return a result whose value
      under every three-valued assignment is the FIXED TABLE of DD/Tdd.v
      ([k_not], [table op], [ite3]) applied to the operands' values;
    - [tfun_of], [td_*_tfun]: the same for assignments variable |-> tri under
      the table's variable order;
    - [td_*_cache_transparent], [td_*_history_independent],
      [td_*_result_unique]: the returned reference does not depend on the
      cache, the edge order or the history. *)

From Coq Require Import List NArith PArith Bool Arith Lia FMapPositive.
From OxiVerif Require Import DD.Table DD.TableProofs DD.Canon DD.Build DD.BuildProofs
  DD.Apply DD.ApplyProofs DD.Cache DD.CacheProofs DD.Tdd DD.TddTables
  DD.ApplyTdd DD.ApplyTddBase DD.ApplyTddProofs DD.ApplyTddIte.
Import ListNotations.

(** ** Cache instances (the instances of DD/Apply.v and DD/Cache.v) *)

Lemma tac_empty_ok : forall s, TCacheOK ac_get s [].
Proof. intros s code args r E. discriminate. Qed.

Lemma tnc_ok : forall s c, TCacheOK nc_get s c.
Proof. intros s c code args r E. discriminate. Qed.

(** the direct-mapped, lossy cache of oxidd-cache (DD/Cache.v), any hash *)
Lemma tdm_init_ok : forall hash s nb cap, TCacheOK (dmr_get hash) s (dm_init nb cap).
Proof. intros hash s nb cap code args r E. rewrite dmr_get_init in E. discriminate. Qed.

Lemma tdm_clear_ok : forall hash s c, TCacheOK (dmr_get hash) s (dm_clear c).
Proof. intros hash s c code args r E. rewrite dmr_get_clear in E. discriminate. Qed.

(** ** Constants *)

Theorem td_const_ok : forall s v, TdOK s ->
  exists t, td_const s v = Some (RT t) /\ DenT s (RT t) (fn_const v) /\
    forall r0, DenT s r0 (fn_const v) -> r0 = RT t.
Proof.
  intros s v B. unfold td_const. destruct (term3_total s v B) as [t E]. rewrite E.
  exists t. split; [reflexivity|]. pose proof (dent_const s v t B E) as D. split; [exact D|].
  intros r0 D0. apply (dent_canon s r0 (RT t) _ B D0 D).
Qed.

(** ** Variables *)

Theorem td_var_ok : forall s v, TdOK s -> v < nlevels s ->
  exists lvl s' r, nth_error (s_v2l s) v = Some lvl /\ nth_error (s_l2v s) lvl = Some v /\
    td_var s v = Some (s', r) /\ TdOK s' /\ extends s s' /\ DenT s' r (fn_var lvl) /\
    (forall r0, DenT s r0 (fn_var lvl) -> s' = s /\ r = r0).
Proof.
  intros s v B Hv. pose proof (to_wf s B) as H.
  destruct (v2l_level s v H Hv) as [lvl [E1 [E2 Hlvl]]].
  unfold td_var. rewrite E1.
  destruct (term3_total s TT B) as [t2 T2]. destruct (term3_total s TU B) as [t1 T1].
  destruct (term3_total s TF B) as [t0 T0]. rewrite T2, T1, T0.
  assert (Hne : t2 <> t1).
  { intros ->. pose proof (term3_spec s TT t1 H T2) as V. rewrite (term3_spec s TU t1 H T1) in V.
    discriminate. }
  (* the children differ, so [reduce] is the table look-up: the node step *)
  destruct (get_or_insert s lvl [E (RT t2); E (RT t1); E (RT t0)]) as [s' h] eqn:Eg.
  assert (Em : mk_node s lvl [E (RT t2); E (RT t1); E (RT t0)] = (s', h)).
  { unfold mk_node. simpl all_equal. unfold edge_eqb at 1. simpl.
    destruct (N.eqb_spec t2 t1); [contradiction | exact Eg]. }
  assert (II : forall w, indepT (fn_const w) (S lvl)) by (intros w a a' _; reflexivity).
  assert (Ev : forall a, pick3 lvl (fn_const TT) (fn_const TU) (fn_const TF) a = fn_var lvl a)
    by (intros a; unfold pick3, fn_var, fn_const; destruct (a lvl); reflexivity).
  pose proof (dent_const s TT t2 B T2) as D2. pose proof (dent_const s TU t1 B T1) as D1.
  pose proof (dent_const s TF t0 B T0) as D0.
  destruct (node_stepT s lvl _ _ _ _ _ _ s' h B Hlvl D2 D1 D0 (II TT) (II TU) (II TF) Em) as [B' [X D]].
  exists lvl, s', (eref h). split; [reflexivity|]. split; [exact E2|]. split; [reflexivity|].
  split; [exact B'|]. split; [exact X|]. split; [apply (dent_ext _ _ _ _ D Ev)|].
  intros r0 Dr.
  apply (mk_node_stableT s lvl _ _ _ _ _ _ s' h r0 B Hlvl D2 D1 D0 (II TT) (II TU) (II TF) Em).
  apply (dent_ext _ _ _ _ Dr). intros a. symmetry. apply Ev.
Qed.

(** ** Cofactors: the children in the order true, unknown, false *)

Theorem td_cofactors_ok : forall s r phi, TdOK s -> DenT s r phi ->
  match r with
  | RT _ => td_cofactors s r = None
  | RN id =>
    exists nd t u e, find_node s id = Some nd /\ td_cofactors s r = Some (t, u, e) /\
      DenT s t (fn_restrict phi (nlevel nd) TT) /\
      DenT s u (fn_restrict phi (nlevel nd) TU) /\
      DenT s e (fn_restrict phi (nlevel nd) TF) /\
      (* the root's level is a level the function really depends on, and none above it *)
      ~ (t = u /\ u = e) /\ indepT phi (nlevel nd) /\
      nlevel nd < rlevel s t /\ nlevel nd < rlevel s u /\ nlevel nd < rlevel s e
  end.
Proof.
  intros s r phi B D. pose proof (to_wf s B) as H. destruct r as [t|id]; [reflexivity|].
  destruct (proj1 D) as [nd Ef].
  destruct (dent_children s id nd phi B D Ef) as [t [u [e [Ech [Hne K]]]]].
  destruct (K TT) as [Dt Lt], (K TU) as [Du Lu], (K TF) as [De Le].
  exists nd, t, u, e. split; [exact Ef|].
  split; [simpl; rewrite Ef; unfold children3; rewrite Ech; reflexivity|].
  split; [exact Dt|]. split; [exact Du|]. split; [exact De|]. split; [exact Hne|].
  split; [rewrite <- (rlevel_node s id nd Ef); apply (dent_indep s _ phi H D) | auto].
Qed.

(** ** The theorems in terms of [semk] only *)

(** value of [r] under the choice [c0]: [semk] with the standard fuel *)
Definition tvalue (s : snap) (r : ref) (c0 : nat -> nat) (x : tri) : Prop :=
  semk s (FUEL s) r c0 = Some (tcode x).

Lemma tvalue_fun : forall s r c0 x y, tvalue s r c0 x -> tvalue s r c0 y -> x = y.
Proof. intros s r c0 x y A B. unfold tvalue in *. apply tcode_inj. congruence. Qed.

Section Top.
Variable gt : ref -> ref -> bool.
Variable C : Type.
Variable cget : C -> N -> list ref -> option ref.
Variable cadd : C -> N -> list ref -> ref -> C.
Hypothesis Hlossy : lossy cget cadd.

Theorem td_apply_not_sound : forall fuel s c f,
  TdOK s -> TCacheOK cget s c -> ref_ok s f -> FUEL s <= fuel ->
  exists s' c' r, td_apply_not C cget cadd fuel s c f = Some (s', c', r) /\
    TdOK s' /\ extends s s' /\ TCacheOK cget s' c' /\ ref_ok s' r /\
    forall a : assignment, exists x,
      tvalue s f (chc a) x /\ tvalue s' r (chc a) (k_not x).
Proof.
  intros fuel s c f B O Hf Hfuel.
  destruct (dent_exists s f B Hf) as [phi Df]. unfold FUEL in Hfuel.
  destruct (td_apply_not_ok C cget cadd Hlossy fuel s c f phi B O Df ltac:(lia))
    as [s' [c' [r [E [B' [X [O' [D' _]]]]]]]].
  exists s', c', r. repeat (split; [assumption|]). split; [apply (proj1 D')|].
  intros a. exists (phi a). split; [apply (proj2 Df a) | apply (proj2 D' a)].
Qed.

Theorem td_apply_bin_sound : forall op fuel s c f g,
  TdOK s -> TCacheOK cget s c -> ref_ok s f -> ref_ok s g -> FUEL s <= fuel ->
  exists s' c' r, td_apply_bin gt C cget cadd fuel s c op f g = Some (s', c', r) /\
    TdOK s' /\ extends s s' /\ TCacheOK cget s' c' /\ ref_ok s' r /\
    forall a : assignment, exists x y,
      tvalue s f (chc a) x /\ tvalue s g (chc a) y /\ tvalue s' r (chc a) (table op x y).
Proof.
  intros op fuel s c f g B O Hf Hg Hfuel.
  destruct (dent_exists s f B Hf) as [phi Df]. destruct (dent_exists s g B Hg) as [psi Dg].
  unfold FUEL in Hfuel.
  destruct (td_apply_bin_ok gt C cget cadd Hlossy op fuel s c f g phi psi B O Df Dg ltac:(lia))
    as [s' [c' [r [E [B' [X [O' [D' _]]]]]]]].
  exists s', c', r. repeat (split; [assumption|]). split; [apply (proj1 D')|].
  intros a. exists (phi a), (psi a).
  split; [apply (proj2 Df a)|]. split; [apply (proj2 Dg a) | apply (proj2 D' a)].
Qed.

Theorem td_apply_ite_sound : forall fuel s c f g h,
  TdOK s -> TCacheOK cget s c -> ref_ok s f -> ref_ok s g -> ref_ok s h -> FUEL s <= fuel ->
  exists s' c' r, td_apply_ite gt C cget cadd fuel s c f g h = Some (s', c', r) /\
    TdOK s' /\ extends s s' /\ TCacheOK cget s' c' /\ ref_ok s' r /\
    forall a : assignment, exists x y z,
      tvalue s f (chc a) x /\ tvalue s g (chc a) y /\ tvalue s h (chc a) z /\
      tvalue s' r (chc a) (ite3 x y z).
Proof.
  intros fuel s c f g h B O Hf Hg Hh Hfuel.
  destruct (dent_exists s f B Hf) as [phi Df]. destruct (dent_exists s g B Hg) as [psi Dg].
  destruct (dent_exists s h B Hh) as [theta Dh]. unfold FUEL in Hfuel.
  destruct (td_apply_ite_ok gt C cget cadd Hlossy fuel s c f g h phi psi theta B O Df Dg Dh ltac:(lia))
    as [s' [c' [r [E [B' [X [O' [D' _]]]]]]]].
  exists s', c', r. repeat (split; [assumption|]). split; [apply (proj1 D')|].
  intros a. exists (phi a), (psi a), (theta a).
  split; [apply (proj2 Df a)|]. split; [apply (proj2 Dg a)|].
  split; [apply (proj2 Dh a) | apply (proj2 D' a)].
Qed.

End Top.

(** ** In terms of three-valued assignments of the variables *)

(** the assignment by level that an assignment of the variables induces under
    the table's variable order *)
Definition lvl_asg (s : snap) (av : nat -> tri) : assignment :=
  fun l => match nth_error (s_l2v s) l with Some v => av v | None => TT end.

(** the three-valued function (of the variables) of a reference *)
Definition tfun_of (s : snap) (r : ref) : (nat -> tri) -> tri :=
  fun av => match semk s (FUEL s) r (chc (lvl_asg s av)) with
            | Some c => match tdecode c with Some v => v | None => TF end
            | None => TF
            end.

Lemma tfun_of_den : forall s r phi, DenT s r phi -> forall av, tfun_of s r av = phi (lvl_asg s av).
Proof.
  intros s r phi [_ D] av. unfold tfun_of, FUEL. rewrite D, tdecode_tcode. reflexivity.
Qed.

Lemma lvl_asg_extends : forall s s' av l, extends s s' -> lvl_asg s' av l = lvl_asg s av l.
Proof. intros s s' av l X. unfold lvl_asg. rewrite (ext_l2v _ _ X). reflexivity. Qed.

Section TopAsg.
Variable gt : ref -> ref -> bool.
Variable C : Type.
Variable cget : C -> N -> list ref -> option ref.
Variable cadd : C -> N -> list ref -> ref -> C.
Hypothesis Hlossy : lossy cget cadd.

Lemma tfun_of_ext : forall s s' r phi av, TdOK s' -> extends s s' -> DenT s' r phi ->
  tfun_of s' r av = phi (lvl_asg s av).
Proof.
  intros s s' r phi av B' X D. rewrite (tfun_of_den s' r phi D).
  apply (dent_pointwise s' r phi _ _ (to_wf s' B') D). intros l. apply lvl_asg_extends. exact X.
Qed.

Theorem td_apply_not_tfun : forall s c f,
  TdOK s -> TCacheOK cget s c -> ref_ok s f ->
  exists s' c' r, td_apply_not C cget cadd (FUEL s) s c f = Some (s', c', r) /\
    TdOK s' /\ extends s s' /\ ref_ok s' r /\
    forall av, tfun_of s' r av = k_not (tfun_of s f av).
Proof.
  intros s c f B O Hf. destruct (dent_exists s f B Hf) as [phi Df].
  destruct (td_apply_not_ok C cget cadd Hlossy (FUEL s) s c f phi B O Df ltac:(unfold FUEL; lia))
    as [s' [c' [r [E [B' [X [_ [D' _]]]]]]]].
  exists s', c', r. split; [exact E|]. split; [exact B'|]. split; [exact X|]. split; [apply (proj1 D')|].
  intros av. rewrite (tfun_of_ext s s' r _ av B' X D'), (tfun_of_den s f phi Df). reflexivity.
Qed.

Theorem td_apply_bin_tfun : forall op s c f g,
  TdOK s -> TCacheOK cget s c -> ref_ok s f -> ref_ok s g ->
  exists s' c' r, td_apply_bin gt C cget cadd (FUEL s) s c op f g = Some (s', c', r) /\
    TdOK s' /\ extends s s' /\ ref_ok s' r /\
    forall av, tfun_of s' r av = table op (tfun_of s f av) (tfun_of s g av).
Proof.
  intros op s c f g B O Hf Hg.
  destruct (dent_exists s f B Hf) as [phi Df]. destruct (dent_exists s g B Hg) as [psi Dg].
  destruct (td_apply_bin_ok gt C cget cadd Hlossy op (FUEL s) s c f g phi psi B O Df Dg
              ltac:(unfold FUEL; lia)) as [s' [c' [r [E [B' [X [_ [D' _]]]]]]]].
  exists s', c', r. split; [exact E|]. split; [exact B'|]. split; [exact X|]. split; [apply (proj1 D')|].
  intros av. rewrite (tfun_of_ext s s' r _ av B' X D'), (tfun_of_den s f phi Df), (tfun_of_den s g psi Dg).
  reflexivity.
Qed.

Theorem td_apply_ite_tfun : forall s c f g h,
  TdOK s -> TCacheOK cget s c -> ref_ok s f -> ref_ok s g -> ref_ok s h ->
  exists s' c' r, td_apply_ite gt C cget cadd (FUEL s) s c f g h = Some (s', c', r) /\
    TdOK s' /\ extends s s' /\ ref_ok s' r /\
    forall av, tfun_of s' r av = ite3 (tfun_of s f av) (tfun_of s g av) (tfun_of s h av).
Proof.
  intros s c f g h B O Hf Hg Hh.
  destruct (dent_exists s f B Hf) as [phi Df]. destruct (dent_exists s g B Hg) as [psi Dg].
  destruct (dent_exists s h B Hh) as [theta Dh].
  destruct (td_apply_ite_ok gt C cget cadd Hlossy (FUEL s) s c f g h phi psi theta B O Df Dg Dh
              ltac:(unfold FUEL; lia)) as [s' [c' [r [E [B' [X [_ [D' _]]]]]]]].
  exists s', c', r. split; [exact E|]. split; [exact B'|]. split; [exact X|]. split; [apply (proj1 D')|].
  intros av. rewrite (tfun_of_ext s s' r _ av B' X D'), (tfun_of_den s f phi Df),
    (tfun_of_den s g psi Dg), (tfun_of_den s h theta Dh). reflexivity.
Qed.

End TopAsg.

Theorem td_const_tfun : forall s v, TdOK s ->
  exists r, td_const s v = Some r /\ ref_ok s r /\ forall av, tfun_of s r av = v.
Proof.
  intros s v B. destruct (td_const_ok s v B) as [t [E [D _]]]. exists (RT t).
  split; [exact E|]. split; [apply (proj1 D)|]. intros av. apply (tfun_of_den s _ _ D).
Qed.

Theorem td_var_tfun : forall s v, TdOK s -> v < nlevels s ->
  exists s' r, td_var s v = Some (s', r) /\ TdOK s' /\ extends s s' /\ ref_ok s' r /\
    forall av, tfun_of s' r av = av v.
Proof.
  intros s v B Hv.
  destruct (td_var_ok s v B Hv) as [lvl [s' [r [E1 [E2 [Em [B' [X [D _]]]]]]]]].
  exists s', r. split; [exact Em|]. split; [exact B'|]. split; [exact X|]. split; [apply (proj1 D)|].
  intros av. rewrite (tfun_of_den s' r _ D). unfold fn_var, lvl_asg.
  rewrite (ext_l2v _ _ X), E2. reflexivity.
Qed.

(** ** The returned handle does not depend on the cache, the edge order or
       the history *)

Section Transparent.
(** two arbitrary cache implementations and edge orders *)
Variables gt1 gt2 : ref -> ref -> bool.
Variables C1 C2 : Type.
Variable cget1 : C1 -> N -> list ref -> option ref.
Variable cadd1 : C1 -> N -> list ref -> ref -> C1.
Variable cget2 : C2 -> N -> list ref -> option ref.
Variable cadd2 : C2 -> N -> list ref -> ref -> C2.
Hypothesis L1 : lossy cget1 cadd1.
Hypothesis L2 : lossy cget2 cadd2.

(** (a) whatever the two caches contain (as long as it is correct), the two
    runs on the same table return the same reference: started from the table
    the first run produced, the second run creates nothing *)
Theorem td_apply_bin_cache_transparent : forall op s c1 c2 f g fuel1 fuel2 s1 c1' r1 s2 c2' r2,
  TdOK s -> TCacheOK cget1 s c1 -> TCacheOK cget2 s c2 -> ref_ok s f -> ref_ok s g ->
  FUEL s <= fuel1 -> FUEL s <= fuel2 ->
  td_apply_bin gt1 C1 cget1 cadd1 fuel1 s c1 op f g = Some (s1, c1', r1) ->
  td_apply_bin gt2 C2 cget2 cadd2 fuel2 s c2 op f g = Some (s2, c2', r2) ->
  forall a : assignment, semk s1 (FUEL s1) r1 (chc a) = semk s2 (FUEL s2) r2 (chc a).
Proof.
  intros op s c1 c2 f g fuel1 fuel2 s1 c1' r1 s2 c2' r2 B O1 O2 Hf Hg F1 F2 E1 E2 a.
  destruct (dent_exists s f B Hf) as [phi Df]. destruct (dent_exists s g B Hg) as [psi Dg].
  unfold FUEL in F1, F2.
  destruct (td_apply_bin_ok gt1 C1 cget1 cadd1 L1 op fuel1 s c1 f g phi psi B O1 Df Dg ltac:(lia))
    as [sa [ca [ra [Ea [_ [_ [_ [Da _]]]]]]]].
  destruct (td_apply_bin_ok gt2 C2 cget2 cadd2 L2 op fuel2 s c2 f g phi psi B O2 Df Dg ltac:(lia))
    as [sb [cb [rb [Eb [_ [_ [_ [Db _]]]]]]]].
  rewrite E1 in Ea. rewrite E2 in Eb. inversion Ea; subst. inversion Eb; subst.
  unfold FUEL. rewrite (proj2 Da a), (proj2 Db a). reflexivity.
Qed.

(** (b) repeating the operation in any later state of the same table (more
    nodes, any correct cache of any implementation, any edge order) returns
    the identical reference and leaves the table unchanged *)
Theorem td_apply_not_history_independent : forall s c1 f fuel1 s1 c1' r1,
  TdOK s -> TCacheOK cget1 s c1 -> ref_ok s f -> FUEL s <= fuel1 ->
  td_apply_not C1 cget1 cadd1 fuel1 s c1 f = Some (s1, c1', r1) ->
  forall s2 c2 fuel2, TdOK s2 -> extends s1 s2 -> TCacheOK cget2 s2 c2 -> FUEL s2 <= fuel2 ->
  exists c2', td_apply_not C2 cget2 cadd2 fuel2 s2 c2 f = Some (s2, c2', r1).
Proof.
  intros s c1 f fuel1 s1 c1' r1 B O1 Hf F1 E1 s2 c2 fuel2 B2 X O2 F2.
  destruct (dent_exists s f B Hf) as [phi Df]. unfold FUEL in F1, F2.
  destruct (td_apply_not_ok C1 cget1 cadd1 L1 fuel1 s c1 f phi B O1 Df ltac:(lia))
    as [sa [ca [ra [Ea [Ba [Xa [_ [Da _]]]]]]]].
  rewrite E1 in Ea. inversion Ea; subst sa ca ra.
  assert (X02 : extends s s2) by (eapply extends_trans; eauto).
  pose proof (dent_extends s s2 _ _ B X02 Df) as Df2.
  destruct (td_apply_not_ok C2 cget2 cadd2 L2 fuel2 s2 c2 f phi B2 O2 Df2 ltac:(lia))
    as [sb [cb [rb [Eb [_ [_ [_ [_ Sb]]]]]]]].
  destruct (Sb r1 (dent_extends s1 s2 _ _ Ba X Da)) as [-> ->].
  exists cb. exact Eb.
Qed.

Theorem td_apply_bin_history_independent : forall op s c1 f g fuel1 s1 c1' r1,
  TdOK s -> TCacheOK cget1 s c1 -> ref_ok s f -> ref_ok s g -> FUEL s <= fuel1 ->
  td_apply_bin gt1 C1 cget1 cadd1 fuel1 s c1 op f g = Some (s1, c1', r1) ->
  forall s2 c2 fuel2, TdOK s2 -> extends s1 s2 -> TCacheOK cget2 s2 c2 -> FUEL s2 <= fuel2 ->
  exists c2', td_apply_bin gt2 C2 cget2 cadd2 fuel2 s2 c2 op f g = Some (s2, c2', r1).
Proof.
  intros op s c1 f g fuel1 s1 c1' r1 B O1 Hf Hg F1 E1 s2 c2 fuel2 B2 X O2 F2.
  destruct (dent_exists s f B Hf) as [phi Df]. destruct (dent_exists s g B Hg) as [psi Dg].
  unfold FUEL in F1, F2.
  destruct (td_apply_bin_ok gt1 C1 cget1 cadd1 L1 op fuel1 s c1 f g phi psi B O1 Df Dg ltac:(lia))
    as [sa [ca [ra [Ea [Ba [Xa [_ [Da _]]]]]]]].
  rewrite E1 in Ea. inversion Ea; subst sa ca ra.
  assert (X02 : extends s s2) by (eapply extends_trans; eauto).
  pose proof (dent_extends s s2 _ _ B X02 Df) as Df2. pose proof (dent_extends s s2 _ _ B X02 Dg) as Dg2.
  destruct (td_apply_bin_ok gt2 C2 cget2 cadd2 L2 op fuel2 s2 c2 f g phi psi B2 O2 Df2 Dg2 ltac:(lia))
    as [sb [cb [rb [Eb [_ [_ [_ [_ Sb]]]]]]]].
  destruct (Sb r1 (dent_extends s1 s2 _ _ Ba X Da)) as [-> ->].
  exists cb. exact Eb.
Qed.

Theorem td_apply_ite_history_independent : forall s c1 f g h fuel1 s1 c1' r1,
  TdOK s -> TCacheOK cget1 s c1 -> ref_ok s f -> ref_ok s g -> ref_ok s h -> FUEL s <= fuel1 ->
  td_apply_ite gt1 C1 cget1 cadd1 fuel1 s c1 f g h = Some (s1, c1', r1) ->
  forall s2 c2 fuel2, TdOK s2 -> extends s1 s2 -> TCacheOK cget2 s2 c2 -> FUEL s2 <= fuel2 ->
  exists c2', td_apply_ite gt2 C2 cget2 cadd2 fuel2 s2 c2 f g h = Some (s2, c2', r1).
Proof.
  intros s c1 f g h fuel1 s1 c1' r1 B O1 Hf Hg Hh F1 E1 s2 c2 fuel2 B2 X O2 F2.
  destruct (dent_exists s f B Hf) as [phi Df]. destruct (dent_exists s g B Hg) as [psi Dg].
  destruct (dent_exists s h B Hh) as [theta Dh]. unfold FUEL in F1, F2.
  destruct (td_apply_ite_ok gt1 C1 cget1 cadd1 L1 fuel1 s c1 f g h phi psi theta B O1 Df Dg Dh ltac:(lia))
    as [sa [ca [ra [Ea [Ba [Xa [_ [Da _]]]]]]]].
  rewrite E1 in Ea. inversion Ea; subst sa ca ra.
  assert (X02 : extends s s2) by (eapply extends_trans; eauto).
  pose proof (dent_extends s s2 _ _ B X02 Df) as Df2. pose proof (dent_extends s s2 _ _ B X02 Dg) as Dg2.
  pose proof (dent_extends s s2 _ _ B X02 Dh) as Dh2.
  destruct (td_apply_ite_ok gt2 C2 cget2 cadd2 L2 fuel2 s2 c2 f g h phi psi theta B2 O2 Df2 Dg2 Dh2 ltac:(lia))
    as [sb [cb [rb [Eb [_ [_ [_ [_ Sb]]]]]]]].
  destruct (Sb r1 (dent_extends s1 s2 _ _ Ba X Da)) as [-> ->].
  exists cb. exact Eb.
Qed.

End Transparent.

(** (c) in its result table the returned reference is THE reference with the
    result's meaning *)
Theorem td_apply_bin_result_unique : forall gt C cget cadd, lossy cget cadd ->
  forall op fuel s (c : C) f g s' c' r,
  TdOK s -> TCacheOK cget s c -> ref_ok s f -> ref_ok s g -> FUEL s <= fuel ->
  td_apply_bin gt C cget cadd fuel s c op f g = Some (s', c', r) ->
  forall r0, ref_ok s' r0 ->
    (forall a : assignment, exists x y,
        tvalue s f (chc a) x /\ tvalue s g (chc a) y /\ tvalue s' r0 (chc a) (table op x y)) ->
    r0 = r.
Proof.
  intros gt C cget cadd L op fuel s c f g s' c' r B O Hf Hg F E r0 H0 Hsem.
  destruct (dent_exists s f B Hf) as [phi Df]. destruct (dent_exists s g B Hg) as [psi Dg].
  unfold FUEL in F.
  destruct (td_apply_bin_ok gt C cget cadd L op fuel s c f g phi psi B O Df Dg ltac:(lia))
    as [sa [ca [ra [Ea [Ba [_ [_ [Da _]]]]]]]].
  rewrite E in Ea. inversion Ea; subst sa ca ra.
  apply (dent_canon s' r0 r (fn_bin op phi psi) Ba); [|exact Da].
  split; [exact H0|]. intros a. destruct (Hsem a) as [x [y [Vx [Vy V0]]]]. unfold fn_bin.
  rewrite (tvalue_fun s f (chc a) _ _ (proj2 Df a) Vx), (tvalue_fun s g (chc a) _ _ (proj2 Dg a) Vy).
  exact V0.
Qed.

Theorem td_apply_ite_result_unique : forall gt C cget cadd, lossy cget cadd ->
  forall fuel s (c : C) f g h s' c' r,
  TdOK s -> TCacheOK cget s c -> ref_ok s f -> ref_ok s g -> ref_ok s h -> FUEL s <= fuel ->
  td_apply_ite gt C cget cadd fuel s c f g h = Some (s', c', r) ->
  forall r0, ref_ok s' r0 ->
    (forall a : assignment, exists x y z,
        tvalue s f (chc a) x /\ tvalue s g (chc a) y /\ tvalue s h (chc a) z /\
        tvalue s' r0 (chc a) (ite3 x y z)) ->
    r0 = r.
Proof.
  intros gt C cget cadd L fuel s c f g h s' c' r B O Hf Hg Hh F E r0 H0 Hsem.
  destruct (dent_exists s f B Hf) as [phi Df]. destruct (dent_exists s g B Hg) as [psi Dg].
  destruct (dent_exists s h B Hh) as [theta Dh]. unfold FUEL in F.
  destruct (td_apply_ite_ok gt C cget cadd L fuel s c f g h phi psi theta B O Df Dg Dh ltac:(lia))
    as [sa [ca [ra [Ea [Ba [_ [_ [Da _]]]]]]]].
  rewrite E in Ea. inversion Ea; subst sa ca ra.
  apply (dent_canon s' r0 r (fn_ite phi psi theta) Ba); [|exact Da].
  split; [exact H0|]. intros a. destruct (Hsem a) as [x [y [z [Vx [Vy [Vz V0]]]]]]. unfold fn_ite.
  rewrite (tvalue_fun s f (chc a) _ _ (proj2 Df a) Vx), (tvalue_fun s g (chc a) _ _ (proj2 Dg a) Vy),
    (tvalue_fun s h (chc a) _ _ (proj2 Dh a) Vz).
  exact V0.
Qed.
