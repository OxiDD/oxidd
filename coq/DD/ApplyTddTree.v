(** * The tree model of C11 (DD/Tdd.v) is the unfolding of the table model
      (DD/ApplyTdd.v)

    [td_unfold s r] reads the sub-diagram below reference [r] as a value of the
    tree type [tdd] of DD/Tdd.v (structural sharing forgotten).

    - [td_unfold_ok]: every reference of a [TdOK] table unfolds to an ordered,
      reduced, level-bounded tree whose function ([Tdd.sem]) is the function the
      reference denotes;
    - [td_unfold_inj]: two references of one table with the same unfolding are
      the same reference (hash-consing = structural equality of the trees: the
      justification of [tdd_eqb] as "edge equality" in DD/Tdd.v);
    - [td_apply_not_tree], [td_apply_bin_tree], [td_apply_ite_tree]: the result
      of the table algorithm unfolds to the result of the tree algorithm of
      DD/Tdd.v on the unfolded operands, for every pair of edge orders, cache
      and cache contents. *)

From Coq Require Import List NArith PArith Bool Arith Lia FMapPositive.
From OxiVerif Require Import DD.Table DD.TableProofs DD.Canon DD.Build DD.BuildProofs
  DD.Apply DD.ApplyProofs DD.Tdd DD.TddTables DD.TddBasic DD.TddCanon DD.TddApplyBin DD.TddApplyIte
  DD.ApplyTdd DD.ApplyTddBase DD.ApplyTddProofs DD.ApplyTddIte DD.ApplyTddTop.
Import ListNotations.

Definition unfoldT (s : snap) (r : ref) : option tdd := td_unfold (FUEL s) s r.

Theorem td_unfold_ok : forall s, TdOK s -> forall fuel r phi, DenT s r phi ->
  nlevels s - rlevel s r < fuel ->
  exists t, td_unfold fuel s r = Some t /\ (forall a, sem t a = phi a) /\
    ordered_from (rlevel s r) t /\ reduced t /\ below (nlevels s) t.
Proof.
  intros s B. pose proof (to_wf s B) as H.
  induction fuel as [|n IH]; intros r phi D Hf; [lia|].
  destruct r as [t|id].
  - destruct (proj1 D) as [c Ec]. simpl. rewrite Ec.
    destruct (tdecode_total c (to_codes s B t c Ec)) as [v Ev]. rewrite Ev.
    exists (Leaf v). split; [reflexivity|]. split; [|simpl; auto].
    intros a. simpl. apply tcode_inj. pose proof (proj2 D a) as E. rewrite semk_T, Ec in E.
    rewrite (tcode_tdecode c v Ev). congruence.
  - destruct (proj1 D) as [nd E].
    destruct (dent_children s id nd phi B D E) as [x [y [z [Ech [Hred K]]]]].
    destruct (K TT) as [Dx Lx], (K TU) as [Dy Ly], (K TF) as [Dz Lz].
    rewrite (rlevel_node s id nd E) in Hf. pose proof (wf_level s H id nd E) as Hl.
    pose proof (rlevel_le s H x). pose proof (rlevel_le s H y). pose proof (rlevel_le s H z).
    destruct (IH _ _ Dx ltac:(lia)) as [tx [Ux [Sx [Ox [Rx Bx]]]]].
    destruct (IH _ _ Dy ltac:(lia)) as [ty [Uy [Sy [Oy [Ry By]]]]].
    destruct (IH _ _ Dz ltac:(lia)) as [tz [Uz [Sz [Oz [Rz Bz]]]]].
    simpl. rewrite E, Ech. cbn [eref Build.E]. rewrite Ux, Uy, Uz.
    exists (Node (nlevel nd) tx ty tz). split; [reflexivity|].
    split; [|split; [|split]].
    + intros a. rewrite sem_node.
      rewrite <- (dent_upd_self s (RN id) phi a (nlevel nd) H D).
      destruct (a (nlevel nd)); [apply Sz | apply Sy | apply Sx].
    + try rewrite (rlevel_node s id nd E). simpl. split; [apply le_n|].
      split; [apply (ordered_from_mono tx _ _ Lx Ox)|].
      split; [apply (ordered_from_mono ty _ _ Ly Oy) | apply (ordered_from_mono tz _ _ Lz Oz)].
    + simpl. split; [|auto]. intros [Exy Eyz]. apply Hred. subst ty tz. split.
      * apply (dent_canon s _ _ (fn_restrict phi (nlevel nd) TT) B Dx).
        apply (dent_ext s _ _ _ Dy). intros a. rewrite <- Sy. apply Sx.
      * apply (dent_canon s _ _ (fn_restrict phi (nlevel nd) TU) B Dy).
        apply (dent_ext s _ _ _ Dz). intros a. rewrite <- Sz. apply Sy.
    + simpl. auto.
Qed.

Corollary unfoldT_ok : forall s r phi, TdOK s -> DenT s r phi ->
  exists t, unfoldT s r = Some t /\ (forall a, sem t a = phi a) /\
    ordered t /\ reduced t /\ below (nlevels s) t.
Proof.
  intros s r phi B D.
  destruct (td_unfold_ok s B (FUEL s) r phi D ltac:(unfold FUEL; lia)) as [t [U [S [O [R Bl]]]]].
  exists t. split; [exact U|]. split; [exact S|]. split; [|auto].
  apply (ordered_from_mono t _ 0 (Nat.le_0_l _) O).
Qed.

(** the tree determines the reference *)
Theorem td_unfold_inj : forall s r1 r2 t, TdOK s -> ref_ok s r1 -> ref_ok s r2 ->
  unfoldT s r1 = Some t -> unfoldT s r2 = Some t -> r1 = r2.
Proof.
  intros s r1 r2 t B O1 O2 U1 U2.
  destruct (dent_exists s r1 B O1) as [p1 D1]. destruct (dent_exists s r2 B O2) as [p2 D2].
  destruct (unfoldT_ok s r1 p1 B D1) as [t1 [V1 [S1 _]]].
  destruct (unfoldT_ok s r2 p2 B D2) as [t2 [V2 [S2 _]]].
  rewrite U1 in V1. rewrite U2 in V2. inversion V1; subst t1. inversion V2; subst t2.
  apply (dent_canon s r1 r2 p1 B D1). apply (dent_ext s r2 p2 p1 D2).
  intros a. rewrite <- S1, <- S2. reflexivity.
Qed.

(** and vice versa: the unfolding of a reference is the only ordered reduced
    tree with the reference's function *)
Theorem td_unfold_unique : forall s r phi t, TdOK s -> DenT s r phi ->
  ordered t -> reduced t -> (forall a, sem t a = phi a) -> unfoldT s r = Some t.
Proof.
  intros s r phi t B D Ot Rt St.
  destruct (unfoldT_ok s r phi B D) as [t' [U [S [O [R _]]]]]. rewrite U. f_equal.
  apply canon; auto. intros a. rewrite S, St. reflexivity.
Qed.

(** the unfolding of a reference does not change when the table grows *)
Theorem td_unfold_extends : forall s s' r, TdOK s -> TdOK s' -> extends s s' -> ref_ok s r ->
  unfoldT s' r = unfoldT s r.
Proof.
  intros s s' r B B' X Hok. destruct (dent_exists s r B Hok) as [phi D].
  destruct (unfoldT_ok s r phi B D) as [t [U [S [O [R _]]]]]. rewrite U.
  apply (td_unfold_unique s' r phi t B' (dent_extends s s' r phi B X D) O R S).
Qed.

(** ** The algorithms commute with unfolding *)

Section Tree.
Variable gt : ref -> ref -> bool.              (* edge order of the table algorithm *)
Variable gtt : tdd -> tdd -> bool.             (* edge order of the tree algorithm *)
Variable C : Type.
Variable cget : C -> N -> list ref -> option ref.
Variable cadd : C -> N -> list ref -> ref -> C.
Hypothesis Hlossy : lossy cget cadd.

Theorem td_apply_not_tree : forall fuel s c f s' c' r,
  TdOK s -> TCacheOK cget s c -> ref_ok s f -> FUEL s <= fuel ->
  td_apply_not C cget cadd fuel s c f = Some (s', c', r) ->
  exists tf, unfoldT s f = Some tf /\ unfoldT s' r = Some (Tdd.apply_not tf).
Proof.
  intros fuel s c f s' c' r B O Hf F E.
  destruct (dent_exists s f B Hf) as [phi Df]. unfold FUEL in F.
  destruct (td_apply_not_ok C cget cadd Hlossy fuel s c f phi B O Df ltac:(lia))
    as [sa [ca [ra [Ea [Ba [_ [_ [Da _]]]]]]]].
  rewrite E in Ea. inversion Ea; subst sa ca ra.
  destruct (unfoldT_ok s f phi B Df) as [tf [Uf [Sf [Of [Rf _]]]]].
  exists tf. split; [exact Uf|].
  apply (td_unfold_unique s' r (fn_not phi) _ Ba Da).
  - apply apply_not_ordered. exact Of.
  - apply apply_not_reduced. exact Rf.
  - intros a. rewrite apply_not_sem, Sf. reflexivity.
Qed.

Theorem td_apply_bin_tree : forall op fuel s c f g s' c' r,
  TdOK s -> TCacheOK cget s c -> ref_ok s f -> ref_ok s g -> FUEL s <= fuel ->
  td_apply_bin gt C cget cadd fuel s c op f g = Some (s', c', r) ->
  exists tf tg, unfoldT s f = Some tf /\ unfoldT s g = Some tg /\
    unfoldT s' r = Tdd.apply_bin_auto gtt op tf tg.
Proof.
  intros op fuel s c f g s' c' r B O Hf Hg F E.
  destruct (dent_exists s f B Hf) as [phi Df]. destruct (dent_exists s g B Hg) as [psi Dg].
  unfold FUEL in F.
  destruct (td_apply_bin_ok gt C cget cadd Hlossy op fuel s c f g phi psi B O Df Dg ltac:(lia))
    as [sa [ca [ra [Ea [Ba [_ [_ [Da _]]]]]]]].
  rewrite E in Ea. inversion Ea; subst sa ca ra.
  destruct (unfoldT_ok s f phi B Df) as [tf [Uf [Sf [Of [Rf _]]]]].
  destruct (unfoldT_ok s g psi B Dg) as [tg [Ug [Sg [Og [Rg _]]]]].
  exists tf, tg. split; [exact Uf|]. split; [exact Ug|].
  destruct (apply_bin_auto_correct gtt op tf tg) as [tr [Er [Sr [Or [Rr _]]]]].
  rewrite Er.
  apply (td_unfold_unique s' r (fn_bin op phi psi) tr Ba Da).
  - apply (Or 0); assumption.
  - apply Rr; assumption.
  - intros a. rewrite Sr, Sf, Sg. reflexivity.
Qed.

Theorem td_apply_ite_tree : forall fuel s c f g h s' c' r,
  TdOK s -> TCacheOK cget s c -> ref_ok s f -> ref_ok s g -> ref_ok s h -> FUEL s <= fuel ->
  td_apply_ite gt C cget cadd fuel s c f g h = Some (s', c', r) ->
  exists tf tg th, unfoldT s f = Some tf /\ unfoldT s g = Some tg /\ unfoldT s h = Some th /\
    unfoldT s' r = Tdd.apply_ite_auto gtt tf tg th.
Proof.
  intros fuel s c f g h s' c' r B O Hf Hg Hh F E.
  destruct (dent_exists s f B Hf) as [phi Df]. destruct (dent_exists s g B Hg) as [psi Dg].
  destruct (dent_exists s h B Hh) as [theta Dh]. unfold FUEL in F.
  destruct (td_apply_ite_ok gt C cget cadd Hlossy fuel s c f g h phi psi theta B O Df Dg Dh ltac:(lia))
    as [sa [ca [ra [Ea [Ba [_ [_ [Da _]]]]]]]].
  rewrite E in Ea. inversion Ea; subst sa ca ra.
  destruct (unfoldT_ok s f phi B Df) as [tf [Uf [Sf [Of [Rf _]]]]].
  destruct (unfoldT_ok s g psi B Dg) as [tg [Ug [Sg [Og [Rg _]]]]].
  destruct (unfoldT_ok s h theta B Dh) as [th [Uh [Sh [Oh [Rh _]]]]].
  exists tf, tg, th. split; [exact Uf|]. split; [exact Ug|]. split; [exact Uh|].
  destruct (apply_ite_auto_correct gtt tf tg th) as [tr [Er [Sr [Or [Rr _]]]]].
  rewrite Er.
  apply (td_unfold_unique s' r (fn_ite phi psi theta) tr Ba Da).
  - apply (Or 0); assumption.
  - apply Rr; assumption.
  - intros a. rewrite Sr, Sf, Sg, Sh. reflexivity.
Qed.

End Tree.
