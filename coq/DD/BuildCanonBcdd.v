(** * The canonical diagram of a function (DD/BuildCanon.v): BCDD kind

    The complement-edge counterpart of DD/BuildCanonProofs.v and of the
    two-table section of DD/Iso.v:

    - [build_bcdd_from_ok], [build_bcdd_ok]: the construction succeeds in every
      BCDD table, extends it, keeps it well-formed; the returned edge denotes
      the function;
    - [same_denc]: two references (of two tables) whose *untagged* edges denote
      the same function; [bcdd_iso]: this is an isomorphism ([iso]), in
      particular corresponding child edges carry the same complement tag;
    - [bcdd_diagram_unique], [bcdd_count_unique]: two edges of two BCDD tables
      denoting the same function have the same tag, isomorphic sub-diagrams and
      the same node count;
    - [bcdd_node_count_canonical]: C03's last clause for the BCDD kind. *)

From Coq Require Import List NArith PArith Bool Arith Lia FMapPositive.
From OxiVerif Require Import DD.Table DD.TableExtra DD.TableProofs DD.Canon DD.CanonBcdd DD.Sem DD.Build
  DD.BuildProofs DD.PickInsert DD.Apply DD.ApplyProofs DD.ApplyBcdd DD.ApplyBcddProofs DD.Iso
  DD.BuildCanon DD.BuildCanonProofs.
Import ListNotations.

(** ** The interpretation only looks at the levels of the table *)

Lemma semc_ext_lt : forall s, WF s -> forall f e c c',
  (forall l, l < nlevels s -> c l = c' l) -> semc s f e c = semc s f e c'.
Proof.
  intros s H. induction f as [|f IH]; intros e c c' Hcc.
  - destruct (eref e) as [t|id] eqn:Er.
    + rewrite !(semc_T _ _ _ _ t Er). reflexivity.
    + rewrite !(semc_O _ _ _ id Er). reflexivity.
  - destruct (eref e) as [t|id] eqn:Er.
    + rewrite !(semc_T _ _ _ _ t Er). reflexivity.
    + rewrite !(semc_S _ _ _ _ id Er).
      destruct (find_node s id) as [nd|] eqn:E; [|reflexivity].
      rewrite <- (Hcc (nlevel nd) (wf_level s H id nd E)).
      destruct (nth_error (nchildren nd) (c (nlevel nd))) as [e'|]; [|reflexivity].
      rewrite (IH e' c c' Hcc). reflexivity.
Qed.

Lemma denc_ext_lt : forall s e phi, WF s -> DenC s e phi -> forall c c', bchoice c -> bchoice c' ->
  (forall l, l < nlevels s -> c l = c' l) -> phi c = phi c'.
Proof.
  intros s e phi H [_ D] c c' Hc Hc' E.
  pose proof (D c Hc) as A. pose proof (D c' Hc') as A'.
  rewrite (semc_ext_lt s H _ e c c' E) in A. congruence.
Qed.

Lemma denc_ctrunc : forall s e phi, WF s -> DenC s e phi -> DenC s e (fun c => phi (ctrunc (nlevels s) c)).
Proof.
  intros s e phi H D. apply (denc_ext s e phi _ D). intros c Hc.
  apply (denc_ext_lt s e phi H D); [exact Hc | apply bchoice_ctrunc; exact Hc|].
  intros l Hl. symmetry. apply ctrunc_lt. exact Hl.
Qed.

(** ** The construction inside a given BCDD table *)

Lemma build_bcdd_from_S : forall s lvl k f c0,
  build_bcdd_from s lvl (S k) f c0 =
  match build_bcdd_from s (S lvl) k f (cset c0 lvl 0) with
  | None => None
  | Some (s1, e0) =>
    match build_bcdd_from s1 (S lvl) k f (cset c0 lvl 1) with
    | None => None
    | Some (s2, e1) => Some (cmk_node s2 lvl e0 e1)
    end
  end.
Proof. reflexivity. Qed.

Theorem build_bcdd_from_ok : forall cnt s lvl f c0, BcOK s -> lvl + cnt = nlevels s ->
  exists s' e, build_bcdd_from s lvl cnt f c0 = Some (s', e) /\ BcOK s' /\ extends s s' /\
    DenC s' e (fun c => f (cmerge lvl cnt c0 c)).
Proof.
  induction cnt as [|k IH]; intros s lvl f c0 B Hn.
  - simpl. destruct (cget_terminal_den s (f c0) B) as [e [Ee De]]. rewrite Ee. exists s, e.
    split; [reflexivity|]. split; [exact B|]. split; [apply extends_refl | exact De].
  - rewrite build_bcdd_from_S.
    destruct (IH s (S lvl) f (cset c0 lvl 0) B ltac:(lia)) as [s1 [e0 [E1 [B1 [X1 D0]]]]].
    rewrite E1.
    assert (Hn1 : S lvl + k = nlevels s1) by (rewrite (ext_nlevels _ _ X1); lia).
    destruct (IH s1 (S lvl) f (cset c0 lvl 1) B1 Hn1) as [s2 [e1 [E2 [B2 [X2 D1]]]]].
    rewrite E2.
    destruct (cmk_node s2 lvl e0 e1) as [s3 h] eqn:Em.
    pose proof (denc_extends s1 s2 e0 _ B1 X2 D0) as D0'.
    assert (Hl2 : lvl < nlevels s2) by (rewrite (ext_nlevels _ _ X2); lia).
    destruct (cnode_step s2 lvl e0 e1 _ _ s3 h B2 Hl2 D0' D1
                (indep_cmerge f (S lvl) k (cset c0 lvl 0)) (indep_cmerge f (S lvl) k (cset c0 lvl 1)) Em)
      as [B3 [X3 D3]].
    exists s3, h. split; [reflexivity|]. split; [exact B3|].
    split; [exact (extends_trans _ _ _ X1 (extends_trans _ _ _ X2 X3))|].
    apply (denc_ext s3 h _ _ D3). intros c Hc. simpl cmerge.
    pose proof (Hc lvl) as H2. destruct (c lvl) as [|[|j]]; [reflexivity | reflexivity | lia].
Qed.

Lemma base_bcdd_ok : forall v2l l2v, order_ok v2l l2v -> BcOK (base_snap KBcdd bcdd_terms v2l l2v).
Proof.
  intros v2l l2v Ho. apply bcok_b_spec. unfold bcok_b, wf_b. simpl.
  rewrite (proj2 (perm_inverse_b_spec v2l l2v) Ho). reflexivity.
Qed.

Theorem build_bcdd_ok : forall v2l l2v f, order_ok v2l l2v ->
  exists s e, build_bcdd v2l l2v f = Some (s, e) /\ BcOK s /\
    s_v2l s = v2l /\ s_l2v s = l2v /\ s_handles s = [] /\
    DenC s e (fun c => f (ctrunc (length l2v) c)).
Proof.
  intros v2l l2v f Ho. unfold build_bcdd.
  destruct (build_bcdd_from_ok (length l2v) (base_snap KBcdd bcdd_terms v2l l2v) 0 f (fun _ => 0)
              (base_bcdd_ok v2l l2v Ho) eq_refl) as [s [e [E0 [B [X D]]]]].
  exists s, e. split; [exact E0|]. split; [exact B|].
  split; [apply (ext_v2l _ _ X)|]. split; [apply (ext_l2v _ _ X)|].
  split; [apply (ext_handles _ _ X) | exact D].
Qed.

Corollary build_bcdd_den : forall v2l l2v f, order_ok v2l l2v -> levels_only (length l2v) f ->
  exists s e, build_bcdd v2l l2v f = Some (s, e) /\ BcOK s /\ DenC s e f.
Proof.
  intros v2l l2v f Ho L. destruct (build_bcdd_ok v2l l2v f Ho) as [s [e [E0 [B [_ [_ [_ D]]]]]]].
  exists s, e. split; [exact E0|]. split; [exact B|].
  apply (denc_ext s e _ f D). intros c _. apply levels_only_ctrunc. exact L.
Qed.

(** ** Two BCDD tables *)

(** the value of an edge on the all-"then" path is decided by its tag *)
Lemma denc_all_then : forall s e phi, BcOK s -> DenC s e phi -> phi (fun _ => 0) = negb (etag e).
Proof.
  intros s e phi B [O D]. pose proof (bc_wf s B) as H.
  specialize (D (fun _ => 0) ltac:(intros l; lia)).
  pose proof (rlevel_le s H (eref e)).
  rewrite (semc_all_then s H (bc_kind s B) _ e O) in D by lia. congruence.
Qed.

Lemma denc_untag : forall s e phi, DenC s e phi ->
  DenC s (mkEdge (eref e) false) (fun c => xorb (etag e) (phi c)).
Proof.
  intros s e phi D. pose proof (denc_retag s e phi (etag e) D) as D'.
  unfold retag in D'. rewrite xorb_nilpotent in D'. exact D'.
Qed.

Section TwoTablesC.
Variables s1 s2 : snap.
Hypothesis B1 : BcOK s1.
Hypothesis B2 : BcOK s2.
Hypothesis Hlev : nlevels s1 = nlevels s2.

(** the untagged edges to the two references denote the same function *)
Definition same_denc (r1 r2 : ref) : Prop :=
  exists phi, DenC s1 (mkEdge r1 false) phi /\ DenC s2 (mkEdge r2 false) phi.

(** two edges with the same denotation: equal tags, related references *)
Lemma same_denc_edges : forall e1 e2 phi, DenC s1 e1 phi -> DenC s2 e2 phi ->
  etag e1 = etag e2 /\ same_denc (eref e1) (eref e2).
Proof.
  intros e1 e2 phi D1 D2.
  assert (Ht : etag e1 = etag e2).
  { pose proof (denc_all_then s1 e1 phi B1 D1) as A1. pose proof (denc_all_then s2 e2 phi B2 D2) as A2.
    destruct (etag e1), (etag e2); simpl in *; congruence. }
  split; [exact Ht|]. exists (fun c => xorb (etag e1) (phi c)).
  split; [apply denc_untag; exact D1 | rewrite Ht; apply denc_untag; exact D2].
Qed.

Lemma same_denc_level : forall r1 r2, same_denc r1 r2 -> rlevel s1 r1 = rlevel s2 r2.
Proof.
  intros r1 r2 [phi [D1 D2]].
  pose proof (denc_indep s1 _ phi (bc_wf s1 B1) D1) as I1.
  pose proof (denc_indep s2 _ phi (bc_wf s2 B2) D2) as I2.
  pose proof (rlevel_le s1 (bc_wf s1 B1) r1) as L1.
  pose proof (rlevel_le s2 (bc_wf s2 B2) r2) as L2.
  pose proof (denc_level s2 _ phi (rlevel s1 r1) B2 D2 ltac:(simpl in *; lia) I1).
  pose proof (denc_level s1 _ phi (rlevel s2 r2) B1 D1 ltac:(simpl in *; lia) I2).
  simpl in *. lia.
Qed.

(** related nodes: same level, children pairwise with equal tags and related references *)
Lemma same_denc_children : forall a b n1 n2, same_denc (RN a) (RN b) ->
  find_node s1 a = Some n1 -> find_node s2 b = Some n2 ->
  nlevel n1 = nlevel n2 /\
  exists x0 x1 y0 y1, nchildren n1 = [x0; x1] /\ nchildren n2 = [y0; y1] /\
    etag x0 = etag y0 /\ etag x1 = etag y1 /\
    same_denc (eref x0) (eref y0) /\ same_denc (eref x1) (eref y1).
Proof.
  intros a b n1 n2 HR E1 E2. pose proof (same_denc_level _ _ HR) as Hl.
  rewrite (rlevel_node s1 a n1 E1), (rlevel_node s2 b n2 E2) in Hl.
  split; [exact Hl|]. destruct HR as [phi [D1 D2]].
  destruct (bcdd_children s1 a n1 B1 E1) as [x0 [x1 Ex]].
  destruct (bcdd_children s2 b n2 B2 E2) as [y0 [y1 Ey]].
  exists x0, x1, y0, y1. split; [exact Ex|]. split; [exact Ey|].
  assert (Hx0 : nth_error (nchildren n1) 0 = Some x0) by (rewrite Ex; reflexivity).
  assert (Hx1 : nth_error (nchildren n1) 1 = Some x1) by (rewrite Ex; reflexivity).
  assert (Hy0 : nth_error (nchildren n2) 0 = Some y0) by (rewrite Ey; reflexivity).
  assert (Hy1 : nth_error (nchildren n2) 1 = Some y1) by (rewrite Ey; reflexivity).
  pose proof (denc_child s1 _ a n1 0 x0 phi B1 D1 eq_refl E1 Hx0) as C10.
  pose proof (denc_child s1 _ a n1 1 x1 phi B1 D1 eq_refl E1 Hx1) as C11.
  pose proof (denc_child s2 _ b n2 0 y0 phi B2 D2 eq_refl E2 Hy0) as C20.
  pose proof (denc_child s2 _ b n2 1 y1 phi B2 D2 eq_refl E2 Hy1) as C21.
  simpl etag in C10, C11, C20, C21. rewrite retag_false in C10, C11, C20, C21. rewrite <- Hl in C20, C21.
  destruct (same_denc_edges x0 y0 _ C10 C20) as [T0 R0].
  destruct (same_denc_edges x1 y1 _ C11 C21) as [T1 R1].
  auto.
Qed.

Lemma same_denc_bisim : bisim s1 s2 same_denc.
Proof.
  pose proof (bc_wf s1 B1) as H1. pose proof (bc_wf s2 B2) as H2.
  constructor.
  - intros r1 r2 HR. pose proof (same_denc_level r1 r2 HR) as Hl.
    destruct HR as [phi [D1 D2]].
    apply (same_level_shape s1 s2 r1 r2 H1 H2 (proj1 D1) (proj1 D2) Hlev Hl).
  - intros a b HR. pose proof HR as [phi [D1 D2]].
    destruct (proj1 D1) as [n1 E1]. destruct (proj1 D2) as [n2 E2]. simpl in E1, E2. rewrite E1, E2.
    destruct (same_denc_children a b n1 n2 HR E1 E2) as [_ [x0 [x1 [y0 [y1 [Ex [Ey [_ [_ [R0 R1]]]]]]]]]].
    rewrite Ex, Ey. simpl. constructor; [exact R0|]. constructor; [exact R1 | constructor].
  - intros a b a' b' [phi [D1 D2]] [phi' [D1' D2']]. split; intros ->.
    + assert (Hr : mkEdge (RN b) false = mkEdge (RN b') false); [|inversion Hr; reflexivity].
      apply (denc_canon s2 _ _ phi B2 D2). apply (denc_ext s2 _ phi' phi D2').
      intros c Hc. apply (denc_unique s1 _ phi' phi D1' D1 c Hc).
    + assert (Hr : mkEdge (RN a) false = mkEdge (RN a') false); [|inversion Hr; reflexivity].
      apply (denc_canon s1 _ _ phi B1 D1). apply (denc_ext s1 _ phi' phi D1').
      intros c Hc. apply (denc_unique s2 _ phi' phi D2' D2 c Hc).
  - (* a BCDD table has one terminal *)
    intros t u t' u' [phi [D1 D2]] [phi' [D1' D2']].
    destruct (proj1 D1) as [v1 V1]. destruct (proj1 D1') as [v1' V1'].
    destruct (proj1 D2) as [v2 V2]. destruct (proj1 D2') as [v2' V2'].
    simpl in *.
    pose proof (bcdd_one_term s1 t t' v1 v1' (bc_kind s1 B1) (bc_terms_kind s1 B1) V1 V1').
    pose proof (bcdd_one_term s2 u u' v2 v2' (bc_kind s2 B2) (bc_terms_kind s2 B2) V2 V2').
    tauto.
Qed.

Theorem bcdd_iso : iso s1 s2 same_denc.
Proof.
  constructor.
  - exact same_denc_bisim.
  - exact same_denc_level.
  - intros t u _ Hk. exfalso. apply Hk. apply (bc_kind s1 B1).
  - intros a b n1 n2 HR E1 E2.
    destruct (same_denc_children a b n1 n2 HR E1 E2) as [_ [x0 [x1 [y0 [y1 [Ex [Ey [T0 [T1 _]]]]]]]]].
    rewrite Ex, Ey. simpl. rewrite T0, T1. reflexivity.
Qed.

(** UNIQUENESS: two edges of two BCDD tables over the same number of levels
    that denote the same function carry the same tag and have isomorphic
    sub-diagrams *)
Theorem bcdd_diagram_unique : forall e1 e2 phi, DenC s1 e1 phi -> DenC s2 e2 phi ->
  etag e1 = etag e2 /\ exists R, iso s1 s2 R /\ R (eref e1) (eref e2).
Proof.
  intros e1 e2 phi D1 D2. destruct (same_denc_edges e1 e2 phi D1 D2) as [Ht HR].
  split; [exact Ht|]. exists same_denc. split; [exact bcdd_iso | exact HR].
Qed.

Theorem bcdd_count_unique : forall e1 e2 phi, DenC s1 e1 phi -> DenC s2 e2 phi ->
  count_reach s1 e1 = count_reach s2 e2.
Proof.
  intros e1 e2 phi D1 D2. destruct (same_denc_edges e1 e2 phi D1 D2) as [_ HR].
  apply (count_reach_bisim s1 s2 same_denc same_denc_bisim
           (wf_arity_ok s1 (bc_wf s1 B1)) (wf_arity_ok s2 (bc_wf s2 B2)) e1 e2 HR).
Qed.

End TwoTablesC.

(** ** The node count of an edge is the size of the diagram built from its function *)

Theorem bcdd_count_is_build : forall s e f v2l l2v, BcOK s -> order_ok v2l l2v ->
  length l2v = nlevels s -> DenC s e (fun c => f (ctrunc (length l2v) c)) ->
  exists s' e', build_bcdd v2l l2v f = Some (s', e') /\ BcOK s' /\
    count_reach s e = count_reach s' e' /\ etag e = etag e' /\
    exists R, iso s s' R /\ R (eref e) (eref e').
Proof.
  intros s e f v2l l2v B Ho Hlen D.
  destruct (build_bcdd_ok v2l l2v f Ho) as [s' [e' [E0 [B' [_ [El [_ D']]]]]]].
  exists s', e'. split; [exact E0|]. split; [exact B'|].
  assert (Hl : nlevels s = nlevels s') by (unfold nlevels at 2; rewrite El; symmetry; exact Hlen).
  split; [apply (bcdd_count_unique s s' B B' Hl e e' _ D D')|].
  apply (bcdd_diagram_unique s s' B B' Hl e e' _ D D').
Qed.

Lemma sem_edge_bcdd_code : forall s e c, s_kind s = KBcdd ->
  sem_edge s e c = option_map (fun b : bool => if b then 1%N else 0%N) (semc s (S (nlevels s)) e c).
Proof. intros s e c Hk. unfold sem_edge. rewrite Hk. reflexivity. Qed.

Lemma denc_cfun_of : forall s e, BcOK s -> ref_ok s (eref e) -> DenC s e (cfun_of s e).
Proof.
  intros s e B O. split; [exact O|]. intros c Hc. unfold cfun_of.
  rewrite (sem_edge_bcdd_code s e c (bc_kind s B)).
  pose proof (rlevel_le s (bc_wf s B) (eref e)).
  destruct (semc_total s (bc_wf s B) (S (nlevels s)) e c O (proj2 (bchoice_okc s c B) Hc) ltac:(lia))
    as [v Ev].
  rewrite Ev. destruct v; reflexivity.
Qed.

(** C03, last clause, BCDD kind *)
Theorem bcdd_node_count_canonical : forall s e, BcOK s -> ref_ok s (eref e) ->
  canonical_count s e = Some (count_reach s e).
Proof.
  intros s e B O. unfold canonical_count, build_kind. rewrite (bc_kind s B).
  destruct (bcdd_count_is_build s e (cfun_of s e) (s_v2l s) (s_l2v s) B
              (wf_order_ok s (bc_wf s B)) eq_refl (denc_ctrunc s _ _ (bc_wf s B) (denc_cfun_of s e B O)))
    as [s' [e' [E0 [_ [Hc _]]]]].
  rewrite E0. f_equal. symmetry. exact Hc.
Qed.
