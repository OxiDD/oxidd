(** * The canonical diagram of a function (DD/BuildCanon.v): BDD kind

    - [cmerge_spec], [cmerge_ext]: what the leaves of the construction see;
    - [build_bdd_from_ok]: in every BDD table the construction succeeds,
      extends the table, keeps it well-formed, and the returned reference
      denotes the function;
    - [build_bdd_ok]: [build_bdd] yields a well-formed table of its own whose
      root denotes [f] (restricted to the [n] levels);
    - [iso]: what "the same diagram" means between two tables (a one-to-one
      relation between the references that maps terminals to terminals of the
      same value, nodes to nodes of the same level, children to children);
    - [bdd_iso]: two references of two BDD tables that denote the same
      function have isomorphic sub-diagrams; [bdd_count_unique]: and the same
      node count;
    - [bdd_node_count_canonical]: the node count of any reference of any BDD
      table is the node count of the diagram built from its function under the
      table's order -- C03's last clause for the BDD kind. *)

From Coq Require Import List NArith PArith Bool Arith Lia FMapPositive.
From OxiVerif Require Import DD.Table DD.TableProofs DD.Canon DD.Sem DD.Build DD.BuildProofs
  DD.Apply DD.ApplyProofs DD.ApplyEvalProofs DD.Iso DD.BuildCanon.
Import ListNotations.

(** ** Choices *)

Lemma cset_upd : forall c l i, cset c l i = cupd c l i.
Proof. reflexivity. Qed.

Lemma cmerge_out : forall cnt lvl c0 c l, l < lvl \/ lvl + cnt <= l -> cmerge lvl cnt c0 c l = c0 l.
Proof.
  induction cnt as [|k IH]; intros lvl c0 c l Hl; [reflexivity|].
  simpl. rewrite IH by lia. unfold cset. destruct (Nat.eqb_spec l lvl); [lia | reflexivity].
Qed.

Lemma cmerge_in : forall cnt lvl c0 c l, lvl <= l < lvl + cnt -> cmerge lvl cnt c0 c l = c l.
Proof.
  induction cnt as [|k IH]; intros lvl c0 c l Hl; [lia|]. simpl.
  destruct (Nat.eq_dec l lvl) as [->|Hne]; [|apply IH; lia].
  rewrite cmerge_out by lia. unfold cset. rewrite Nat.eqb_refl. reflexivity.
Qed.

Lemma cmerge_spec : forall cnt lvl c0 c l,
  cmerge lvl cnt c0 c l = if (lvl <=? l) && (l <? lvl + cnt) then c l else c0 l.
Proof.
  intros cnt lvl c0 c l. destruct (Nat.leb_spec lvl l), (Nat.ltb_spec l (lvl + cnt)); simpl;
    [apply cmerge_in | apply cmerge_out | apply cmerge_out | apply cmerge_out]; lia.
Qed.

(** the merged choice reads [c] only at the levels from [lvl] on (an equality
    of functions, not just pointwise: no extensionality needed later) *)
Lemma cmerge_ext : forall cnt lvl c0 c c',
  (forall l, lvl <= l -> c l = c' l) -> cmerge lvl cnt c0 c = cmerge lvl cnt c0 c'.
Proof.
  induction cnt as [|k IH]; intros lvl c0 c c' Hcc; [reflexivity|].
  simpl. rewrite (Hcc lvl (le_n _)). apply IH. intros l Hl. apply Hcc. lia.
Qed.

(** ... and only at the levels below [lvl + cnt] *)
Lemma cmerge_ext_range : forall cnt lvl c0 c c',
  (forall l, lvl <= l < lvl + cnt -> c l = c' l) -> cmerge lvl cnt c0 c = cmerge lvl cnt c0 c'.
Proof.
  induction cnt as [|k IH]; intros lvl c0 c c' Hcc; [reflexivity|].
  simpl. rewrite (Hcc lvl) by lia. apply IH. intros l Hl. apply Hcc. lia.
Qed.

Lemma ctrunc_spec : forall n c l, ctrunc n c l = if l <? n then c l else 0.
Proof. intros n c l. unfold ctrunc. rewrite cmerge_spec. reflexivity. Qed.

Lemma ctrunc_lt : forall n c l, l < n -> ctrunc n c l = c l.
Proof. intros n c l Hl. apply cmerge_in. lia. Qed.

Lemma bchoice_cmerge : forall cnt lvl c0 c, bchoice c0 -> bchoice c -> bchoice (cmerge lvl cnt c0 c).
Proof.
  intros cnt lvl c0 c H0 Hc l. rewrite cmerge_spec.
  destruct ((lvl <=? l) && (l <? lvl + cnt)); auto.
Qed.

Lemma bchoice_ctrunc : forall n c, bchoice c -> bchoice (ctrunc n c).
Proof. intros n c Hc. apply bchoice_cmerge; [intros l; simpl; lia | exact Hc]. Qed.

Lemma indep_cmerge : forall (f : cfun) lvl cnt c0, indep (fun c => f (cmerge lvl cnt c0 c)) lvl.
Proof. intros f lvl cnt c0 c c' _ _ E. rewrite (cmerge_ext cnt lvl c0 c c' E). reflexivity. Qed.

(** a function of the first [n] levels only *)
Definition levels_only (n : nat) (f : cfun) : Prop :=
  forall c c', (forall l, l < n -> c l = c' l) -> f c = f c'.

Lemma levels_only_ctrunc : forall n f c, levels_only n f -> f (ctrunc n c) = f c.
Proof.
  intros n f c L. apply L. intros l Hl. apply ctrunc_lt. exact Hl.
Qed.

(** ** The interpretation only looks at the levels of the table *)

Lemma semk_ext_lt : forall s, WF s -> forall f r c c',
  (forall l, l < nlevels s -> c l = c' l) -> semk s f r c = semk s f r c'.
Proof.
  intros s H. induction f as [|f IH]; intros r c c' Hcc.
  - destruct r as [t|id]; [rewrite !semk_T; reflexivity | reflexivity].
  - destruct r as [t|id]; [rewrite !semk_T; reflexivity|].
    rewrite !semk_S. destruct (find_node s id) as [nd|] eqn:E; [|reflexivity].
    rewrite <- (Hcc (nlevel nd) (wf_level s H id nd E)).
    destruct (nth_error (nchildren nd) (c (nlevel nd))) as [e|]; [|reflexivity].
    apply IH. exact Hcc.
Qed.

(** a denoted function only depends on the levels of the table *)
Lemma den_ext_lt : forall s r phi, WF s -> Den s r phi -> forall c c', bchoice c -> bchoice c' ->
  (forall l, l < nlevels s -> c l = c' l) -> phi c = phi c'.
Proof.
  intros s r phi H [_ D] c c' Hc Hc' E. apply b2c_inj.
  pose proof (D c Hc) as A. pose proof (D c' Hc') as A'.
  rewrite (semk_ext_lt s H _ r c c' E) in A. congruence.
Qed.

(** ** The construction inside a given BDD table *)

Lemma build_bdd_from_S : forall s lvl k f c0,
  build_bdd_from s lvl (S k) f c0 =
  match build_bdd_from s (S lvl) k f (cset c0 lvl 0) with
  | None => None
  | Some (s1, r0) =>
    match build_bdd_from s1 (S lvl) k f (cset c0 lvl 1) with
    | None => None
    | Some (s2, r1) => let '(s3, h) := mk_node s2 lvl [E r0; E r1] in Some (s3, eref h)
    end
  end.
Proof. reflexivity. Qed.

Theorem build_bdd_from_ok : forall cnt s lvl f c0, BddOK s -> lvl + cnt = nlevels s ->
  exists s' r, build_bdd_from s lvl cnt f c0 = Some (s', r) /\ BddOK s' /\ extends s s' /\
    Den s' r (fun c => f (cmerge lvl cnt c0 c)).
Proof.
  induction cnt as [|k IH]; intros s lvl f c0 B Hn.
  - simpl. destruct (term_of_total s (f c0) B) as [t Et]. rewrite Et. exists s, (RT t).
    split; [reflexivity|]. split; [exact B|]. split; [apply extends_refl|].
    exact (den_const s (f c0) t B Et).
  - rewrite build_bdd_from_S.
    destruct (IH s (S lvl) f (cset c0 lvl 0) B ltac:(lia)) as [s1 [r0 [E1 [B1 [X1 D0]]]]].
    rewrite E1.
    assert (Hn1 : S lvl + k = nlevels s1) by (rewrite (ext_nlevels _ _ X1); lia).
    destruct (IH s1 (S lvl) f (cset c0 lvl 1) B1 Hn1) as [s2 [r1 [E2 [B2 [X2 D1]]]]].
    rewrite E2.
    destruct (mk_node s2 lvl [E r0; E r1]) as [s3 h] eqn:Em.
    pose proof (den_extends s1 s2 r0 _ B1 X2 D0) as D0'.
    assert (Hl2 : lvl < nlevels s2) by (rewrite (ext_nlevels _ _ X2); lia).
    destruct (node_step s2 lvl r0 r1 _ _ s3 h B2 Hl2 D0' D1
                (indep_cmerge f (S lvl) k (cset c0 lvl 0)) (indep_cmerge f (S lvl) k (cset c0 lvl 1)) Em)
      as [B3 [X3 D3]].
    exists s3, (eref h). split; [reflexivity|]. split; [exact B3|].
    split; [exact (extends_trans _ _ _ X1 (extends_trans _ _ _ X2 X3))|].
    apply (den_ext s3 (eref h) _ _ D3). intros c Hc. simpl cmerge.
    pose proof (Hc lvl) as H2. destruct (c lvl) as [|[|j]]; [reflexivity | reflexivity | lia].
Qed.

(** ** The table [build_bdd] starts from *)

(** [v2l] and [l2v] are mutually inverse permutations *)
Definition order_ok (v2l l2v : list nat) : Prop :=
  length v2l = length l2v /\ inv_on v2l l2v /\ inv_on l2v v2l.

Lemma wf_order_ok : forall s, WF s -> order_ok (s_v2l s) (s_l2v s).
Proof. intros s H. split; [apply (wf_perm_len s H) | split; [apply (wf_perm_v2l s H) | apply (wf_perm_l2v s H)]]. Qed.

Lemma base_bdd_ok : forall v2l l2v, order_ok v2l l2v -> BddOK (base_snap KBdd bool_terms v2l l2v).
Proof.
  intros v2l l2v Ho. apply bdd_ok_b_spec. unfold bdd_ok_b, wf_b. simpl.
  rewrite (proj2 (perm_inverse_b_spec v2l l2v) Ho). reflexivity.
Qed.

Theorem build_bdd_ok : forall v2l l2v f, order_ok v2l l2v ->
  exists s e, build_bdd v2l l2v f = Some (s, e) /\ BddOK s /\
    s_v2l s = v2l /\ s_l2v s = l2v /\ s_handles s = [] /\ etag e = false /\
    Den s (eref e) (fun c => f (ctrunc (length l2v) c)).
Proof.
  intros v2l l2v f Ho. unfold build_bdd.
  destruct (build_bdd_from_ok (length l2v) (base_snap KBdd bool_terms v2l l2v) 0 f (fun _ => 0)
              (base_bdd_ok v2l l2v Ho) eq_refl) as [s [r [E0 [B [X D]]]]].
  rewrite E0. exists s, (E r). split; [reflexivity|]. split; [exact B|].
  split; [apply (ext_v2l _ _ X)|]. split; [apply (ext_l2v _ _ X)|].
  split; [apply (ext_handles _ _ X)|]. split; [reflexivity|]. exact D.
Qed.

(** for a function of the [n] levels the root denotes the function itself *)
Corollary build_bdd_den : forall v2l l2v f, order_ok v2l l2v -> levels_only (length l2v) f ->
  exists s e, build_bdd v2l l2v f = Some (s, e) /\ BddOK s /\ Den s (eref e) f.
Proof.
  intros v2l l2v f Ho L. destruct (build_bdd_ok v2l l2v f Ho) as [s [e [E0 [B [_ [_ [_ [_ D]]]]]]]].
  exists s, e. split; [exact E0|]. split; [exact B|].
  apply (den_ext s (eref e) _ f D). intros c _. apply levels_only_ctrunc. exact L.
Qed.

(** ** Isomorphic sub-diagrams *)

(** [R] is an isomorphism between (parts of) the diagrams stored in [s1] and
    [s2]: a bisimulation (DD/Iso.v: terminals with terminals, nodes with nodes,
    children related again, one-to-one) that moreover relates only terminals
    of the same value (the value code of the single BCDD terminal carries no
    meaning and is not compared), nodes of the same level, and child edges
    with the same complement tag.  No node id is compared. *)
Record iso (s1 s2 : snap) (R : ref -> ref -> Prop) : Prop := mkIso {
  iso_bisim : bisim s1 s2 R;
  iso_level : forall a b, R a b -> rlevel s1 a = rlevel s2 b;
  iso_term : forall t u, R (RT t) (RT u) -> s_kind s1 <> KBcdd -> term_val s1 t = term_val s2 u;
  iso_tags : forall a b n1 n2, R (RN a) (RN b) ->
    find_node s1 a = Some n1 -> find_node s2 b = Some n2 ->
    map etag (nchildren n1) = map etag (nchildren n2)
}.

Lemma same_level_shape : forall s1 s2 r1 r2, WF s1 -> WF s2 -> ref_ok s1 r1 -> ref_ok s2 r2 ->
  nlevels s1 = nlevels s2 -> rlevel s1 r1 = rlevel s2 r2 ->
  match r1, r2 with RT _, RT _ | RN _, RN _ => True | _, _ => False end.
Proof.
  intros s1 s2 [t|a] [u|b] H1 H2 O1 O2 Hn Hl; auto.
  - destruct O2 as [nd E]. rewrite (rlevel_node s2 b nd E) in Hl. simpl in Hl.
    pose proof (wf_level s2 H2 b nd E). lia.
  - destruct O1 as [nd E]. rewrite (rlevel_node s1 a nd E) in Hl. simpl in Hl.
    pose proof (wf_level s1 H1 a nd E). lia.
Qed.

(** isomorphic sub-diagrams have the same number of nodes *)
Theorem iso_count : forall s1 s2 R, iso s1 s2 R -> arity_ok s1 -> arity_ok s2 ->
  forall e1 e2, R (eref e1) (eref e2) -> count_reach s1 e1 = count_reach s2 e2.
Proof. intros s1 s2 R I. apply (count_reach_bisim s1 s2 R (iso_bisim _ _ _ I)). Qed.

Theorem bdd_iso : forall s1 s2, BddOK s1 -> BddOK s2 -> nlevels s1 = nlevels s2 ->
  iso s1 s2 (same_den s1 s2).
Proof.
  intros s1 s2 B1 B2 Hl. constructor.
  - apply (same_den_bisim s1 s2 B1 B2 Hl).
  - apply (same_den_level s1 s2 B1 B2 Hl).
  - intros t u [phi [[_ D1] [_ D2]]] _.
    specialize (D1 (fun _ => 0) ltac:(intros l; lia)). specialize (D2 (fun _ => 0) ltac:(intros l; lia)).
    rewrite semk_T in D1, D2. congruence.
  - intros a b n1 n2 _ E1 E2.
    destruct (bdd_children s1 a n1 B1 E1) as [x0 [x1 Ex]].
    destruct (bdd_children s2 b n2 B2 E2) as [y0 [y1 Ey]].
    pose proof (wf_tags s1 (bo_wf s1 B1) (proj1 (bdd_kary s1 B1)) a n1) as T1.
    pose proof (wf_tags s2 (bo_wf s2 B2) (proj1 (bdd_kary s2 B2)) b n2) as T2.
    rewrite Ex in *. rewrite Ey in *. simpl.
    rewrite (T1 x0 E1), (T1 x1 E1), (T2 y0 E2), (T2 y1 E2) by (simpl; auto). reflexivity.
Qed.

(** UNIQUENESS: two references, in any two BDD tables over the same number of
    levels, that denote the same function have isomorphic sub-diagrams *)
Theorem bdd_diagram_unique : forall s1 s2 r1 r2 phi, BddOK s1 -> BddOK s2 -> nlevels s1 = nlevels s2 ->
  Den s1 r1 phi -> Den s2 r2 phi ->
  exists R, iso s1 s2 R /\ R r1 r2.
Proof.
  intros s1 s2 r1 r2 phi B1 B2 Hl D1 D2. exists (same_den s1 s2).
  split; [apply bdd_iso; assumption | exists phi; auto].
Qed.

(** ... and the same node count *)
Theorem bdd_count_unique : forall s1 s2 r1 r2 phi, BddOK s1 -> BddOK s2 -> nlevels s1 = nlevels s2 ->
  Den s1 r1 phi -> Den s2 r2 phi -> count_reach s1 (E r1) = count_reach s2 (E r2).
Proof. intros s1 s2 r1 r2 phi B1 B2 Hl. apply (count_reach_den s1 s2 B1 B2 Hl). Qed.

(** ** The node count of a reference is the size of the diagram built from
       its function *)

(** every reference of every BDD table over [length l2v] levels that denotes
    [f] has as many nodes as the diagram [build_bdd] constructs for [f], and
    the two sub-diagrams are isomorphic *)
Theorem bdd_count_is_build : forall s r f v2l l2v, BddOK s -> order_ok v2l l2v ->
  length l2v = nlevels s -> Den s r (fun c => f (ctrunc (length l2v) c)) ->
  exists s' e', build_bdd v2l l2v f = Some (s', e') /\ BddOK s' /\
    count_reach s (E r) = count_reach s' e' /\
    exists R, iso s s' R /\ R r (eref e').
Proof.
  intros s r f v2l l2v B Ho Hlen D.
  destruct (build_bdd_ok v2l l2v f Ho) as [s' [e' [E0 [B' [_ [El [_ [Et D']]]]]]]].
  exists s', e'. split; [exact E0|]. split; [exact B'|].
  assert (Hl : nlevels s = nlevels s') by (unfold nlevels at 2; rewrite El; symmetry; exact Hlen).
  split.
  - replace e' with (E (eref e')) by (destruct e' as [x t]; simpl in *; subst; reflexivity).
    apply (bdd_count_unique s s' r (eref e') _ B B' Hl D D').
  - apply (bdd_diagram_unique s s' r (eref e') _ B B' Hl D D').
Qed.

Lemma sem_edge_bdd : forall s e c, s_kind s = KBdd -> sem_edge s e c = semk s (S (nlevels s)) (eref e) c.
Proof. intros s e c Hk. unfold sem_edge. rewrite Hk. reflexivity. Qed.

(** the function of a handle ([cfun_of], computed by the interpreter) is what it denotes *)
Lemma den_cfun_of : forall s e, BddOK s -> ref_ok s (eref e) -> Den s (eref e) (cfun_of s e).
Proof.
  intros s e B O. split; [exact O|]. intros c Hc. unfold cfun_of.
  rewrite (sem_edge_bdd s e c (bo_kind s B)).
  pose proof (rlevel_le s (bo_wf s B) (eref e)).
  destruct (semk_total s (bo_wf s B) (S (nlevels s)) (eref e) c O (proj2 (bchoice_ok s c B) Hc) ltac:(lia))
    as [v Ev].
  rewrite Ev. destruct (semk_code s B _ _ _ _ Ev) as [->| ->]; reflexivity.
Qed.

Lemma den_ctrunc : forall s r phi, WF s -> Den s r phi -> Den s r (fun c => phi (ctrunc (nlevels s) c)).
Proof.
  intros s r phi H D. apply (den_ext s r phi _ D). intros c Hc.
  apply (den_ext_lt s r phi H D); [exact Hc | apply bchoice_ctrunc; exact Hc|].
  intros l Hl. symmetry. apply ctrunc_lt. exact Hl.
Qed.

(** C03, last clause, BDD kind: for every edge of every well-formed BDD
    table, [canonical_count] (build the reduced diagram of the edge's function
    under the table's variable order in a fresh table, count its nodes) is
    defined and equals the node count of the edge *)
Theorem bdd_node_count_canonical : forall s e, BddOK s -> ref_ok s (eref e) ->
  canonical_count s e = Some (count_reach s e).
Proof.
  intros s e B O. unfold canonical_count, build_kind. rewrite (bo_kind s B).
  destruct (bdd_count_is_build s (eref e) (cfun_of s e) (s_v2l s) (s_l2v s) B
              (wf_order_ok s (bo_wf s B)) eq_refl (den_ctrunc s _ _ (bo_wf s B) (den_cfun_of s e B O)))
    as [s' [e' [E0 [_ [Hc _]]]]].
  rewrite E0. f_equal. symmetry. exact Hc.
Qed.

(** ** In terms of functions of the variables ([Sem.bfun]) *)

(** the assignment of the variables that a choice stands for under [v2l] *)
Definition asg_of (v2l : list nat) (c : nat -> nat) : asg :=
  fun v => match nth_error v2l v with Some l => Nat.eqb (c l) 0 | None => false end.

Lemma lvl_fun_asg : forall v2l g c, lvl_fun v2l g c = g (asg_of v2l c).
Proof. reflexivity. Qed.

Lemma choice_of_asg_of : forall s c l, WF s -> bchoice c -> l < nlevels s ->
  choice_of s (asg_of (s_v2l s) c) l = c l.
Proof.
  intros s c l H Hc Hl. unfold choice_of, asg_of.
  destruct (wf_perm_l2v s H l Hl) as [v [E1 E2]]. rewrite E1, E2.
  pose proof (Hc l). destruct (c l) as [|[|j]]; [reflexivity | reflexivity | lia].
Qed.

(** "the node count of any handle equals the size of the unique reduced diagram
    of its function under the current order": [g] is the function of the
    variables, [lvl_fun (s_v2l s) g] the same function under the table's order *)
Theorem bdd_node_count_bfun : forall s r (g : bfun), BddOK s -> ref_ok s r ->
  (forall a, bfun_of s r a = g a) ->
  exists s' e', build_bdd (s_v2l s) (s_l2v s) (lvl_fun (s_v2l s) g) = Some (s', e') /\ BddOK s' /\
    count_reach s (E r) = count_reach s' e'.
Proof.
  intros s r g B O Hg. pose proof (bo_wf s B) as H.
  destruct (den_exists s r B O) as [phi D].
  destruct (bdd_count_is_build s r (lvl_fun (s_v2l s) g) (s_v2l s) (s_l2v s) B (wf_order_ok s H) eq_refl)
    as [s' [e' [E0 [B' [Hc _]]]]].
  - apply (den_ext s r phi _ D). intros c Hc. rewrite lvl_fun_asg, <- Hg, (bfun_of_den s r phi D).
    apply (den_ext_lt s r phi H D c _ Hc (choice_of_bchoice s _)).
    intros l Hl. rewrite (choice_of_asg_of s _ l H (bchoice_ctrunc _ c Hc) Hl). symmetry. apply ctrunc_lt. exact Hl.
  - exists s', e'. auto.
Qed.
