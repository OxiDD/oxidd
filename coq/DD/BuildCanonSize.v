(** * The textbook count of the reduced ordered BDD equals [count_reach]

    [canon_size_bdd n phi] (DD/BuildCanon.v) counts, level by level, the
    distinct subfunctions of [phi] that depend on their first level (compared
    through truth tables) and the distinct values of [phi].  This file proves

    - [bdd_count_is_canon_size]: for every reference [r] of every well-formed
      BDD table that denotes [phi]: [count_reach s (E r) = canon_size_bdd
      (nlevels s) phi];
    - [bdd_node_count_canon_size]: for every existing edge [e]:
      [count_reach s e = canon_size_bdd (nlevels s) (cfun_of s e)].

    The proof puts together [count_reach_spec] (DD/ReachSpec.v: what is
    counted are the reachable references), the correspondence between reachable
    references and subfunctions (DD/BuildCanonSub.v) and canonicity (one
    reference per function). *)

From Coq Require Import List NArith PArith Bool Arith Lia FMapPositive.
From OxiVerif Require Import DD.Table DD.TableProofs DD.Canon DD.Sem DD.Build DD.BuildProofs
  DD.Apply DD.ApplyProofs DD.Iso DD.BuildCanon DD.BuildCanonProofs DD.ReachSpec DD.BuildCanonSub.
Import ListNotations.

(** ** Lists *)

Lemma bools_eqb_eq : forall a b, bools_eqb a b = true <-> a = b.
Proof.
  induction a as [|x a IH]; intros [|y b]; simpl; split; intro E; try discriminate; try reflexivity.
  - apply andb_true_iff in E. destruct E as [E1 E2]. apply Bool.eqb_prop in E1. apply IH in E2. congruence.
  - inversion E; subst. rewrite Bool.eqb_reflx. simpl. apply IH. reflexivity.
Qed.

Lemma pair_eqb_eq : forall a b, pair_eqb a b = true <-> a = b.
Proof.
  intros [a1 a2] [b1 b2]. unfold pair_eqb. simpl. rewrite andb_true_iff, !bools_eqb_eq.
  split; [intros [-> ->]; reflexivity | intros E; inversion E; auto].
Qed.

Section Dedup.
Variable A : Type.
Variable eqb : A -> A -> bool.
Hypothesis eqb_eq : forall a b, eqb a b = true <-> a = b.

Lemma existsb_eqb_In : forall x l, existsb (eqb x) l = true <-> In x l.
Proof.
  intros x l. rewrite existsb_exists. split.
  - intros [y [Hy E]]. apply eqb_eq in E. subst. exact Hy.
  - intros Hin. exists x. split; [exact Hin | apply eqb_eq; reflexivity].
Qed.

Lemma dedup_In : forall l x, In x (dedup eqb l) <-> In x l.
Proof.
  induction l as [|y l IH]; intros x; simpl; [reflexivity|].
  destruct (existsb (eqb y) l) eqn:E.
  - rewrite IH. split; [auto|]. intros [<-|Hx]; [apply existsb_eqb_In; exact E | exact Hx].
  - simpl. rewrite IH. reflexivity.
Qed.

Lemma dedup_NoDup : forall l, NoDup (dedup eqb l).
Proof.
  induction l as [|y l IH]; simpl; [constructor|].
  destruct (existsb (eqb y) l) eqn:E; [exact IH|].
  constructor; [|exact IH]. intros Hin. apply (proj1 (dedup_In l y)) in Hin.
  apply (proj2 (existsb_eqb_In y l)) in Hin. congruence.
Qed.
End Dedup.

(** two duplicate-free lists with the same members have the same length *)
Lemma NoDup_same_length : forall (A : Type) (l1 l2 : list A), NoDup l1 -> NoDup l2 ->
  (forall x, In x l1 <-> In x l2) -> length l1 = length l2.
Proof.
  intros A l1 l2 N1 N2 E. apply Nat.le_antisymm.
  - apply NoDup_incl_length; [exact N1 | intros x Hx; apply E; exact Hx].
  - apply NoDup_incl_length; [exact N2 | intros x Hx; apply E; exact Hx].
Qed.

(** a duplicate-free list mapped by a function that is injective on it *)
Lemma NoDup_map_inj : forall (A B : Type) (f : A -> B) (l : list A), NoDup l ->
  (forall x y, In x l -> In y l -> f x = f y -> x = y) -> NoDup (map f l).
Proof.
  intros A B f l N. induction N as [|x l Hx N IH]; intros Hinj; simpl; constructor.
  - intros Hin. apply in_map_iff in Hin. destruct Hin as [y [E Hy]].
    assert (y = x) by (apply Hinj; [right; exact Hy | left; reflexivity | exact E]). subst. contradiction.
  - apply IH. intros a b Ha Hb. apply Hinj; right; assumption.
Qed.

Lemma app_inj_len : forall (A : Type) (a a' b b' : list A),
  length a = length a' -> a ++ b = a' ++ b' -> a = a' /\ b = b'.
Proof.
  intros A. induction a as [|x a IH]; intros [|y a'] b b' Hl E; simpl in *; try discriminate; [auto|].
  inversion E; subst. destruct (IH a' b b' ltac:(lia) H1) as [-> ->]. auto.
Qed.

(** ** Sums *)

Lemma sum_upto_ext : forall n g g', (forall L, L < n -> g L = g' L) -> sum_upto n g = sum_upto n g'.
Proof.
  induction n as [|n IH]; intros g g' E; simpl; [reflexivity|].
  rewrite (IH g g') by (intros L HL; apply E; lia). rewrite (E n) by lia. reflexivity.
Qed.

Lemma sum_upto_add : forall n g g', sum_upto n (fun L => g L + g' L) = sum_upto n g + sum_upto n g'.
Proof. induction n as [|n IH]; intros g g'; simpl; [reflexivity | rewrite IH; lia]. Qed.

Lemma sum_upto_zero : forall n, sum_upto n (fun _ => 0) = 0.
Proof. induction n as [|n IH]; simpl; [reflexivity | rewrite IH; reflexivity]. Qed.

Lemma sum_upto_indicator : forall n k,
  sum_upto n (fun L => if Nat.eqb k L then 1 else 0) = if k <? n then 1 else 0.
Proof.
  induction n as [|n IH]; intros k; simpl; [reflexivity|]. rewrite IH.
  destruct (Nat.ltb_spec k n), (Nat.ltb_spec k (S n)), (Nat.eqb_spec k n); lia.
Qed.

(** a list splits by a key with values below [n] *)
Lemma length_partition : forall (A : Type) (key : A -> nat) (l : list A) n,
  (forall x, In x l -> key x < n) ->
  length l = sum_upto n (fun L => length (filter (fun x => Nat.eqb (key x) L) l)).
Proof.
  intros A key l n. induction l as [|x l IH]; intros Hk.
  - simpl. rewrite sum_upto_zero. reflexivity.
  - rewrite (sum_upto_ext n _ (fun L => (if Nat.eqb (key x) L then 1 else 0)
                                        + length (filter (fun y => Nat.eqb (key y) L) l))).
    + rewrite sum_upto_add, sum_upto_indicator, <- IH by (intros y Hy; apply Hk; right; exact Hy).
      specialize (Hk x (or_introl eq_refl)). destruct (Nat.ltb_spec (key x) n); [reflexivity | lia].
    + intros L _. simpl. destruct (Nat.eqb (key x) L); reflexivity.
Qed.

(** ** Truth tables *)

Lemma bchoice_zero : bchoice (fun _ => 0).
Proof. intros l. lia. Qed.

Lemma table_S : forall lvl k f c0,
  table lvl (S k) f c0 = table (S lvl) k f (cset c0 lvl 0) ++ table (S lvl) k f (cset c0 lvl 1).
Proof. reflexivity. Qed.

Lemma table_length : forall cnt lvl f c0, length (table lvl cnt f c0) = 2 ^ cnt.
Proof.
  induction cnt as [|k IH]; intros lvl f c0; [reflexivity|].
  rewrite table_S, app_length, !IH. simpl. lia.
Qed.

(** [cmerge] after setting the first merged level explicitly *)
Lemma cmerge_first : forall lvl k c0 q i, q lvl = i ->
  cmerge lvl (S k) c0 q = cmerge (S lvl) k (cset c0 lvl i) q.
Proof. intros lvl k c0 q i E. simpl. rewrite E. reflexivity. Qed.

Lemma cmerge_set : forall lvl k c0 q i,
  cmerge lvl (S k) c0 (cupd q lvl i) = cmerge (S lvl) k (cset c0 lvl i) q.
Proof.
  intros lvl k c0 q i. rewrite (cmerge_first lvl k c0 _ i) by apply upd_same.
  apply cmerge_ext. intros l Hl. apply upd_other. lia.
Qed.

Lemma merge_split : forall (X : (nat -> nat) -> Prop) lvl k c0,
  (exists q, bchoice q /\ X (cmerge (S lvl) k (cset c0 lvl 0) q)) \/
  (exists q, bchoice q /\ X (cmerge (S lvl) k (cset c0 lvl 1) q)) <->
  exists q, bchoice q /\ X (cmerge lvl (S k) c0 q).
Proof.
  intros X lvl k c0. split.
  - intros [[q [Hq Hx]]|[q [Hq Hx]]]; [exists (cupd q lvl 0) | exists (cupd q lvl 1)];
      (split; [apply bchoice_upd; [exact Hq | lia] | rewrite cmerge_set; exact Hx]).
  - intros [q [Hq Hx]]. pose proof (Hq lvl) as H2.
    destruct (q lvl) as [|[|j]] eqn:E; [left | right | lia]; exists q;
      (split; [exact Hq | rewrite <- (cmerge_first lvl k c0 q _ E); exact Hx]).
Qed.

(** the members of a table are the values on the merged choices *)
Lemma table_In : forall cnt lvl f c0 b,
  In b (table lvl cnt f c0) <-> exists q, bchoice q /\ b = f (cmerge lvl cnt c0 q).
Proof.
  induction cnt as [|k IH]; intros lvl f c0 b.
  - simpl. split.
    + intros [<-|[]]. exists (fun _ => 0). split; [apply bchoice_zero | reflexivity].
    + intros [q [_ ->]]. left. reflexivity.
  - rewrite table_S, in_app_iff, !IH. apply (merge_split (fun m => b = f m)).
Qed.

(** equal tables <-> equal values on all merged choices *)
Lemma table_ext : forall cnt lvl f f' c0 c0',
  (forall q, bchoice q -> f (cmerge lvl cnt c0 q) = f' (cmerge lvl cnt c0' q)) ->
  table lvl cnt f c0 = table lvl cnt f' c0'.
Proof.
  induction cnt as [|k IH]; intros lvl f f' c0 c0' E.
  - simpl. f_equal. apply (E (fun _ => 0) bchoice_zero).
  - rewrite !table_S. f_equal; apply IH; intros q Hq; rewrite <- !cmerge_set; apply E;
      (apply bchoice_upd; [exact Hq | lia]).
Qed.

Lemma table_inj : forall cnt lvl f f' c0 c0',
  table lvl cnt f c0 = table lvl cnt f' c0' ->
  forall q, bchoice q -> f (cmerge lvl cnt c0 q) = f' (cmerge lvl cnt c0' q).
Proof.
  induction cnt as [|k IH]; intros lvl f f' c0 c0' E q Hq.
  - simpl in *. inversion E. reflexivity.
  - rewrite !table_S in E.
    destruct (app_inj_len _ _ _ _ _ ltac:(rewrite !table_length; reflexivity) E) as [E0 E1].
    pose proof (Hq lvl) as H2. destruct (q lvl) as [|[|j]] eqn:Eq; [| |lia].
    + rewrite !(cmerge_first lvl k _ q 0 Eq). apply (IH _ _ _ _ _ E0 q Hq).
    + rewrite !(cmerge_first lvl k _ q 1 Eq). apply (IH _ _ _ _ _ E1 q Hq).
Qed.

Lemma subpairs_S : forall lvl d k f c0,
  subpairs lvl (S d) k f c0 = subpairs (S lvl) d k f (cset c0 lvl 0) ++ subpairs (S lvl) d k f (cset c0 lvl 1).
Proof. reflexivity. Qed.

(** the cofactor-table pair of the subfunction selected by the prefix [q] *)
Definition pair_at (lvl d k : nat) (f : cfun) (c0 q : nat -> nat) : list bool * list bool :=
  (table (S (lvl + d)) k f (cset (cmerge lvl d c0 q) (lvl + d) 0),
   table (S (lvl + d)) k f (cset (cmerge lvl d c0 q) (lvl + d) 1)).

Lemma subpairs_In : forall d lvl k f c0 pr,
  In pr (subpairs lvl d k f c0) <-> exists q, bchoice q /\ pr = pair_at lvl d k f c0 q.
Proof.
  induction d as [|d IH]; intros lvl k f c0 pr.
  - unfold pair_at. simpl. rewrite Nat.add_0_r. split.
    + intros [<-|[]]. exists (fun _ => 0). split; [apply bchoice_zero | reflexivity].
    + intros [q [_ ->]]. left. reflexivity.
  - rewrite subpairs_S, in_app_iff, !IH. unfold pair_at.
    replace (lvl + S d) with (S lvl + d) by lia.
    apply (merge_split (fun m => pr = (table (S (S lvl + d)) k f (cset m (S lvl + d) 0),
                                        table (S (S lvl + d)) k f (cset m (S lvl + d) 1)))).
Qed.

Definition pre (L : nat) (p : nat -> nat) : nat -> nat := cmerge 0 L (fun _ => 0) p.

Lemma bchoice_pre : forall L p, bchoice p -> bchoice (pre L p).
Proof. intros L p Hp. apply bchoice_cmerge; [apply bchoice_zero | exact Hp]. Qed.

Lemma pair_at_0 : forall L k f p,
  pair_at 0 L k f (fun _ => 0) p =
  (table (S L) k f (cset (pre L p) L 0), table (S L) k f (cset (pre L p) L 1)).
Proof. reflexivity. Qed.

Lemma bchoice_cset : forall c l i, bchoice c -> i < 2 -> bchoice (cset c l i).
Proof. intros c l i Hc Hi. apply (bchoice_upd c l i Hc Hi). Qed.

Definition fkey (n L : nat) (g : cfun) : list bool * list bool :=
  (table (S L) (n - S L) g (cset (fun _ => 0) L 0),
   table (S L) (n - S L) g (cset (fun _ => 0) L 1)).

Definition window (n L : nat) (g : cfun) : Prop :=
  forall c c', bchoice c -> bchoice c' -> (forall l, L <= l < n -> c l = c' l) -> g c = g c'.

Lemma indep_window : forall n L g, indep g L ->
  (forall c c', bchoice c -> bchoice c' -> (forall l, l < n -> c l = c' l) -> g c = g c') ->
  window n L g.
Proof.
  intros n L g I Hg c c' Hc Hc' E.
  rewrite (I c (glue L c' c) Hc (bchoice_glue _ _ _ Hc' Hc))
    by (intros l Hl; unfold glue; destruct (Nat.ltb_spec l L); [lia | reflexivity]).
  apply Hg; [apply bchoice_glue; assumption | exact Hc'|].
  intros l Hl. unfold glue. destruct (Nat.ltb_spec l L); [reflexivity | apply E; lia].
Qed.

Lemma merge_at : forall L k c0 i q, cmerge (S L) k (cset c0 L i) q L = i.
Proof.
  intros L k c0 i q. rewrite cmerge_out by lia. unfold cset. rewrite Nat.eqb_refl. reflexivity.
Qed.

Lemma fkey_inj : forall n L g g', L < n -> window n L g -> window n L g' ->
  fkey n L g = fkey n L g' -> forall c, bchoice c -> g c = g' c.
Proof.
  intros n L g g' HL Wg Wg' E c Hc. inversion E as [[E0 E1]].
  assert (Hsel : forall i, c L = i -> i < 2 ->
            table (S L) (n - S L) g (cset (fun _ => 0) L i)
            = table (S L) (n - S L) g' (cset (fun _ => 0) L i) -> g c = g' c).
  { intros i Ei Hi Et.
    set (m := cmerge (S L) (n - S L) (cset (fun _ => 0) L i) c).
    assert (Hm : bchoice m)
      by (apply bchoice_cmerge; [apply bchoice_cset; [apply bchoice_zero | exact Hi] | exact Hc]).
    assert (Em : forall l, L <= l < n -> c l = m l).
    { intros l Hl. unfold m. destruct (Nat.eq_dec l L) as [->|Hne];
        [rewrite merge_at; exact Ei | rewrite cmerge_in by lia; reflexivity]. }
    rewrite (Wg c m Hc Hm Em), (Wg' c m Hc Hm Em). apply (table_inj _ _ _ _ _ _ Et c Hc). }
  pose proof (Hc L) as H2. destruct (c L) as [|[|j]] eqn:Ec; [| |lia].
  - apply (Hsel 0 eq_refl ltac:(lia) E0).
  - apply (Hsel 1 eq_refl ltac:(lia) E1).
Qed.

Section SubTables.
Variable n : nat.
Variable phi : cfun.
Hypothesis Hphi : forall c c', bchoice c -> bchoice c' -> (forall l, l < n -> c l = c' l) -> phi c = phi c'.

Lemma sub_as_merge : forall L p c i, L < n -> bchoice p -> bchoice c -> i < 2 -> c L = i ->
  sub phi L p c = phi (cmerge (S L) (n - S L) (cset (pre L p) L i) c).
Proof.
  intros L p c i HL Hp Hc Hi Ei. unfold sub. apply Hphi.
  - apply bchoice_glue; assumption.
  - apply bchoice_cmerge; [apply bchoice_cset; [apply bchoice_pre; exact Hp | exact Hi] | exact Hc].
  - intros l Hl. unfold glue. destruct (Nat.ltb_spec l L) as [Hlt|Hge].
    + rewrite cmerge_out by lia. unfold cset. rewrite (proj2 (Nat.eqb_neq l L)) by lia.
      symmetry. apply cmerge_in. lia.
    + destruct (Nat.eq_dec l L) as [->|Hne]; [rewrite merge_at; exact Ei | rewrite cmerge_in by lia; reflexivity].
Qed.

Lemma sub_at_entry : forall L p i q, L < n -> bchoice p -> i < 2 -> bchoice q ->
  sub phi L p (cupd q L i) = phi (cmerge (S L) (n - S L) (cset (pre L p) L i) q).
Proof.
  intros L p i q HL Hp Hi Hq.
  rewrite (sub_as_merge L p _ i HL Hp (bchoice_upd q L i Hq Hi) Hi (upd_same q L i)).
  f_equal. apply cmerge_ext. intros l Hl. apply upd_other. lia.
Qed.

Lemma fkey_sub : forall L p (g : cfun), L < n -> bchoice p ->
  (forall c, bchoice c -> g c = sub phi L p c) ->
  fkey n L g = pair_at 0 L (n - S L) phi (fun _ => 0) p.
Proof.
  intros L p g HL Hp Hg. rewrite pair_at_0. unfold fkey.
  assert (Hside : forall i, i < 2 ->
            table (S L) (n - S L) g (cset (fun _ => 0) L i) = table (S L) (n - S L) phi (cset (pre L p) L i)).
  { intros i Hi. apply table_ext. intros q Hq.
    set (m := cmerge (S L) (n - S L) (cset (fun _ => 0) L i) q).
    assert (Hm : bchoice m)
      by (apply bchoice_cmerge; [apply bchoice_cset; [apply bchoice_zero | exact Hi] | exact Hq]).
    rewrite (Hg m Hm), (sub_as_merge L p m i HL Hp Hm Hi (merge_at L _ _ i q)).
    f_equal. apply cmerge_ext_range. intros l Hl. apply cmerge_in. exact Hl. }
  rewrite (Hside 0), (Hside 1) by lia. reflexivity.
Qed.

Lemma essential_iff_depends : forall L p, L < n -> bchoice p ->
  (essential (pair_at 0 L (n - S L) phi (fun _ => 0) p) = true <-> depends_on (sub phi L p) L).
Proof.
  intros L p HL Hp. rewrite pair_at_0. unfold essential, depends_on. simpl fst. simpl snd.
  rewrite negb_true_iff. split.
  - intros Hne Hig. assert (X : bools_eqb (table (S L) (n - S L) phi (cset (pre L p) L 0))
                                          (table (S L) (n - S L) phi (cset (pre L p) L 1)) = true); [|congruence].
    apply bools_eqb_eq. apply table_ext. intros q Hq.
    rewrite <- !sub_at_entry by (auto; lia). apply Hig. exact Hq.
  - intros Hdep. destruct (bools_eqb _ _) eqn:E; [|reflexivity]. exfalso. apply Hdep.
    apply bools_eqb_eq in E. intros c Hc. rewrite !sub_at_entry by (auto; lia).
    apply (table_inj _ _ _ _ _ _ E c Hc).
Qed.

End SubTables.

(** ** Counting the nodes level by level

    The argument shared by the three kinds.  [at_sub L p x]: the reference [x]
    stands for the subfunction (sub-family) of [f] with the levels below [L]
    fixed to [p]; [fn L x] is a function read off the table for [x] whose key
    is the (normalised) cofactor-table pair of that subfunction.  If the
    reachable nodes of level [L] stand for exactly the subfunctions whose pair is
    selected by [sel], one node per key, then the nodes of level [L] are as many
    as the distinct normalised selected pairs. *)

Section LevelCount.
Variable s : snap.
Hypothesis H : WF s.
Variable r0 : ref.
Variable f : cfun.
Variable at_sub : nat -> (nat -> nat) -> ref -> Prop.
Variable fn : nat -> ref -> cfun.
Variable sel : list bool * list bool -> bool.
Variable norm : list bool * list bool -> list bool * list bool.

Let pr (L : nat) (p : nat -> nat) := pair_at 0 L (nlevels s - S L) f (fun _ => 0) p.
Let key (L : nat) (id : positive) := fkey (nlevels s) L (fn L (RN id)).

Hypothesis reach_sub : forall id, reachable s [r0] (RN id) ->
  exists p, bchoice p /\ at_sub (rlevel s (RN id)) p (RN id).
Hypothesis sub_reach : forall L p, L < nlevels s -> bchoice p -> sel (pr L p) = true ->
  exists id, reachable s [r0] (RN id) /\ find_node s id <> None /\ rlevel s (RN id) = L /\ at_sub L p (RN id).
Hypothesis level_sel : forall L p id, L < nlevels s -> bchoice p -> at_sub L p (RN id) ->
  rlevel s (RN id) = L -> sel (pr L p) = true.
Hypothesis key_pair : forall L p id, L < nlevels s -> bchoice p -> at_sub L p (RN id) ->
  key L id = norm (pr L p).
Hypothesis key_one : forall L p p' a b, L < nlevels s -> at_sub L p (RN a) -> at_sub L p' (RN b) ->
  rlevel s (RN a) = L -> rlevel s (RN b) = L -> key L a = key L b -> a = b.

Variable ns : list positive.
Hypothesis Nns : NoDup ns.
Hypothesis Hns : forall id, In id ns <-> reachable s [r0] (RN id) /\ find_node s id <> None.

Let at_level (L : nat) : list positive := filter (fun id => Nat.eqb (rlevel s (RN id)) L) ns.

Lemma at_level_In : forall L id, In id (at_level L) <->
  reachable s [r0] (RN id) /\ find_node s id <> None /\ rlevel s (RN id) = L.
Proof. intros L id. unfold at_level. rewrite filter_In, Hns, Nat.eqb_eq. tauto. Qed.

Lemma at_level_sub : forall L id, In id (at_level L) ->
  rlevel s (RN id) = L /\ exists p, bchoice p /\ at_sub L p (RN id).
Proof.
  intros L id Hin. apply at_level_In in Hin. destruct Hin as [Hr [_ Hl]]. split; [exact Hl|].
  destruct (reach_sub id Hr) as [p Hp]. rewrite Hl in Hp. exists p. exact Hp.
Qed.

Lemma level_count : forall L, L < nlevels s ->
  length (at_level L) = length (dedup pair_eqb (map norm (filter sel (subpairs 0 L (nlevels s - S L) f (fun _ => 0))))).
Proof.
  intros L HL. rewrite <- (map_length (key L) (at_level L)). apply NoDup_same_length.
  - apply NoDup_map_inj; [apply NoDup_filter; exact Nns|]. intros a b Ha Hb Ek.
    destruct (at_level_sub L a Ha) as [La [p [_ Da]]]. destruct (at_level_sub L b Hb) as [Lb [p' [_ Db]]].
    apply (key_one L p p' a b HL Da Db La Lb Ek).
  - apply dedup_NoDup. exact pair_eqb_eq.
  - intros k. rewrite (dedup_In _ pair_eqb pair_eqb_eq), !in_map_iff. split.
    + intros [id [<- Hin]]. destruct (at_level_sub L id Hin) as [Ll [p [Hp Dp]]].
      exists (pr L p). split; [symmetry; apply (key_pair L p id HL Hp Dp)|].
      apply filter_In. split; [apply subpairs_In; exists p; auto | apply (level_sel L p id HL Hp Dp Ll)].
    + intros [k0 [<- Hin]]. apply filter_In in Hin. destruct Hin as [Hin Hsel].
      apply subpairs_In in Hin. destruct Hin as [q [Hq ->]].
      destruct (sub_reach L q HL Hq Hsel) as [id [Rx [Fx [Lx Dx]]]].
      exists id. split; [apply (key_pair L q id HL Hq Dx) | apply at_level_In; auto].
Qed.

Lemma nodes_count : length ns = sum_upto (nlevels s) (fun L =>
  length (dedup pair_eqb (map norm (filter sel (subpairs 0 L (nlevels s - S L) f (fun _ => 0)))))).
Proof.
  rewrite (length_partition _ (fun id => rlevel s (RN id)) ns (nlevels s)).
  - apply sum_upto_ext. intros L HL. apply (level_count L HL).
  - intros id Hin. apply Hns in Hin. destruct Hin as [_ Hf].
    destruct (find_node s id) as [nd|] eqn:En; [|congruence].
    rewrite (rlevel_node s id nd En). apply (wf_level s H id nd En).
Qed.

End LevelCount.

Section Size.
Variable s : snap.
Hypothesis B : BddOK s.
Variable r : ref.
Variable phi : cfun.
Hypothesis D : Den s r phi.

Let H : WF s := bo_wf s B.
Let Hphi := den_ext_lt s r phi H D.

Definition dfun (x : ref) : cfun := cfun_of s (E x).

Lemma den_dfun : forall x, ref_ok s x -> Den s x (dfun x).
Proof. intros x O. apply (den_cfun_of s (E x) B O). Qed.

Lemma dfun_window : forall x, ref_ok s x -> window (nlevels s) (rlevel s x) (dfun x).
Proof.
  intros x O. pose proof (den_dfun x O) as Dx.
  apply indep_window; [apply (den_indep s x _ H Dx) | apply (den_ext_lt s x _ H Dx)].
Qed.

Lemma nodes_count_bdd : forall ns, NoDup ns ->
  (forall id, In id ns <-> reachable s [r] (RN id) /\ find_node s id <> None) ->
  length ns = sum_upto (nlevels s) (fun L => level_nodes (nlevels s) L phi).
Proof.
  intros ns Nns Hns.
  rewrite (nodes_count s H r phi (fun L p x => Den s x (sub phi L p)) (fun _ => dfun) essential (fun k => k))
    with (ns := ns); try assumption.
  - apply sum_upto_ext. intros L _. unfold level_nodes. rewrite map_id. reflexivity.
  - intros id Hr. apply (reachable_is_sub s B r phi D _ Hr).
  - intros L p HL Hp Hess. apply (essential_iff_depends _ _ Hphi L p HL Hp) in Hess.
    destruct (sub_is_reachable s B r phi D L p ltac:(lia) Hp) as [x [Rx [Dx Lx]]].
    apply (sub_level_iff s B r phi D L p x HL Hp Dx) in Hess.
    destruct x as [t|id]; [simpl in Hess; lia|]. exists id.
    destruct (proj1 Dx) as [nd En]. repeat split; [exact Rx | congruence | exact Hess | apply Dx | apply Dx].
  - intros L p id HL Hp Dx Lx. apply (essential_iff_depends _ _ Hphi L p HL Hp).
    apply (sub_level_iff s B r phi D L p _ HL Hp Dx). exact Lx.
  - intros L p id HL Hp Dx. apply (fkey_sub _ _ Hphi L p _ HL Hp).
    apply (den_unique s _ _ _ (den_dfun _ (proj1 Dx)) Dx).
  - intros L p p' a b HL Da Db La Lb Ek.
    assert (Hr : RN a = RN b); [|inversion Hr; reflexivity].
    apply (den_canon s _ _ _ B (den_dfun _ (proj1 Da))). apply (den_ext s _ _ _ (den_dfun _ (proj1 Db))).
    intros c Hc. symmetry. revert c Hc. apply (fkey_inj (nlevels s) L _ _ HL); [| |exact Ek].
    + rewrite <- La. apply dfun_window. apply Da.
    + rewrite <- Lb. apply dfun_window. apply Db.
Qed.

(** *** terminals *)

Definition valb (t : N) : bool := match term_val s t with Some 1%N => true | _ => false end.

Lemma den_term_valb : forall t psi, Den s (RT t) psi -> forall c, bchoice c -> psi c = valb t.
Proof.
  intros t psi [_ Dt] c Hc. specialize (Dt c Hc). rewrite semk_T in Dt. unfold valb. rewrite Dt.
  destruct (psi c); reflexivity.
Qed.

Lemma pre_glue : forall q c, bchoice q -> bchoice c ->
  phi (glue (nlevels s) q c) = phi (cmerge 0 (nlevels s) (fun _ => 0) q).
Proof.
  intros q c Hq Hc. apply Hphi.
  - apply bchoice_glue; assumption.
  - apply bchoice_cmerge; [apply bchoice_zero | exact Hq].
  - intros l Hl. rewrite cmerge_in by lia. unfold glue.
    destruct (Nat.ltb_spec l (nlevels s)); [reflexivity | lia].
Qed.

Lemma terminals_count : forall ts, NoDup ts -> (forall t, In t ts <-> reachable s [r] (RT t)) ->
  length ts = length (dedup Bool.eqb (table 0 (nlevels s) phi (fun _ => 0))).
Proof.
  intros ts Nts Hts. rewrite <- (map_length valb ts). apply NoDup_same_length.
  - apply NoDup_map_inj; [exact Nts|]. intros t u Ht Hu Ev.
    apply Hts in Ht. apply Hts in Hu.
    destruct (reachable_is_sub s B r phi D _ Ht) as [p [_ [[v Et] _]]].
    destruct (reachable_is_sub s B r phi D _ Hu) as [p' [_ [[w Eu] _]]].
    apply (term_val_inj s t u v H Et). rewrite Eu. f_equal. unfold valb in Ev. rewrite Et, Eu in Ev.
    destruct (bo_codes s B t v Et) as [->| ->], (bo_codes s B u w Eu) as [->| ->];
      try reflexivity; discriminate.
  - apply dedup_NoDup. exact Bool.eqb_true_iff.
  - intros b. rewrite (dedup_In _ Bool.eqb Bool.eqb_true_iff), table_In, in_map_iff. split.
    + intros [t [<- Ht]]. apply Hts in Ht.
      destruct (reachable_is_sub s B r phi D _ Ht) as [p [Hp Dp]]. simpl rlevel in Dp.
      exists p. split; [exact Hp|].
      rewrite <- (den_term_valb t _ Dp (fun _ => 0) bchoice_zero). unfold sub.
      apply (pre_glue p _ Hp bchoice_zero).
    + intros [q [Hq ->]].
      destruct (sub_is_reachable s B r phi D (nlevels s) q (le_n _) Hq) as [x [Rx [Dx Lx]]].
      destruct x as [t|id].
      * exists t. split; [|apply Hts; exact Rx].
        rewrite <- (den_term_valb t _ Dx (fun _ => 0) bchoice_zero). unfold sub.
        apply (pre_glue q _ Hq bchoice_zero).
      * exfalso. destruct (proj1 Dx) as [nd En]. rewrite (rlevel_node s id nd En) in Lx.
        pose proof (wf_level s H id nd En). lia.
Qed.

(** the node count of a reference denoting [phi] is the textbook count of [phi] *)
Theorem bdd_count_is_canon_size : count_reach s (E r) = canon_size_bdd (nlevels s) phi.
Proof.
  destruct (count_reach_spec s (wf_arity_ok s H) (E r)) as [ns [ts [Nn [Nt [Hn [Ht Hc]]]]]].
  simpl eref in *. rewrite Hc. unfold canon_size_bdd. f_equal. f_equal.
  - apply (nodes_count_bdd ns Nn Hn).
  - apply (terminals_count ts Nt Ht).
Qed.

End Size.

(** for every existing edge of a well-formed BDD table *)
Theorem bdd_node_count_canon_size : forall s e, BddOK s -> ref_ok s (eref e) ->
  count_reach s e = canon_size_bdd (nlevels s) (cfun_of s e).
Proof.
  intros s e B O.
  assert (Ec : count_reach s e = count_reach s (E (eref e))) by reflexivity.
  rewrite Ec. apply (bdd_count_is_canon_size s B (eref e) _ (den_cfun_of s e B O)).
Qed.

(** and for the diagram [build_bdd] constructs *)
Theorem build_bdd_canon_size : forall v2l l2v f, order_ok v2l l2v ->
  exists s e, build_bdd v2l l2v f = Some (s, e) /\ BddOK s /\
    count_reach s e = canon_size_bdd (length l2v) (fun c => f (ctrunc (length l2v) c)).
Proof.
  intros v2l l2v f Ho. destruct (build_bdd_ok v2l l2v f Ho) as [s [e [E0 [B [_ [El [_ [Et D]]]]]]]].
  exists s, e. split; [exact E0|]. split; [exact B|].
  assert (Hn : nlevels s = length l2v) by (unfold nlevels; rewrite El; reflexivity).
  rewrite <- Hn in *.
  replace e with (E (eref e)) by (destruct e as [x t]; simpl in *; subst; reflexivity).
  apply (bdd_count_is_canon_size s B (eref e) _ D).
Qed.

(** ** Examples: the count is computable and gives the expected numbers *)

Example ex_canon_size :
  canon_size_bdd (nlevels ex_snap) (cfun_of ex_snap (ex_edge (RN 3))) = 5%N /\
  count_reach ex_snap (ex_edge (RN 3)) = 5%N /\
  canon_size_bdd 4 (lvl_fun [0; 1; 2; 3] (fun a => (a 0 && a 1) || (a 2 && a 3))) = 6%N /\
  canon_size_bdd 4 (lvl_fun [0; 2; 1; 3] (fun a => (a 0 && a 1) || (a 2 && a 3))) = 8%N /\
  canon_size_bdd 3 (fun _ => true) = 1%N /\
  canon_size_bdd 3 (fun c => Nat.eqb (c 1) 0) = 3%N.
Proof. vm_compute. repeat split; reflexivity. Qed.
