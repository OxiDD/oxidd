(** * The textbook characterisation and count for complement-edge BDDs

    In a BCDD a function and its complement share their nodes: the references
    reachable from an edge denoting [phi] correspond to the subfunctions of
    [phi] (upper levels fixed) *up to complement*; the untagged edge to a
    reference denotes the representative that is true on the all-"then"
    choice.  A node sits at level [L] iff the subfunction depends on level [L];
    exactly one terminal is reachable.

    - [creachable_is_sub], [csub_is_reachable], [csub_level_iff]: the
      correspondence (counterparts of DD/BuildCanonSub.v);
    - [bcdd_count_is_canon_size]: [count_reach s e = canon_size_bcdd (nlevels s)
      phi] for every edge [e] of every well-formed BCDD table denoting [phi];
      [canon_size_bcdd] (DD/BuildCanon.v) counts per level the distinct
      *normalised* essential cofactor-table pairs, plus one terminal;
    - [bcdd_node_count_canon_size], [build_bcdd_canon_size]. *)

From Coq Require Import List NArith PArith Bool Arith Lia FMapPositive.
From OxiVerif Require Import DD.Table DD.TableExtra DD.TableProofs DD.Canon DD.CanonBcdd DD.Sem DD.Build
  DD.BuildProofs DD.Apply DD.ApplyProofs DD.ApplyBcdd DD.ApplyBcddProofs DD.Iso
  DD.BuildCanon DD.BuildCanonProofs DD.BuildCanonBcdd DD.ReachSpec DD.BuildCanonSub DD.BuildCanonSize.
Import ListNotations.

(** ** Tables under complement *)

Lemma table_negb : forall cnt lvl (f : cfun) c0,
  table lvl cnt (fun c => negb (f c)) c0 = map negb (table lvl cnt f c0).
Proof.
  induction cnt as [|k IH]; intros lvl f c0; [reflexivity|].
  rewrite !table_S, map_app, !IH. reflexivity.
Qed.

Lemma map_negb_inj : forall a b, map negb a = map negb b -> a = b.
Proof.
  induction a as [|x a IH]; intros [|y b] E; simpl in E; try discriminate; [reflexivity|].
  inversion E as [[E1 E2]]. f_equal; [destruct x, y; simpl in *; congruence | apply IH; exact E2].
Qed.

Lemma map_negb_invol : forall a, map negb (map negb a) = a.
Proof. induction a as [|x a IH]; simpl; [reflexivity | rewrite negb_involutive, IH; reflexivity]. Qed.

(** the first entry of a table is the value on the all-"then" completion *)
Lemma table_hd : forall cnt lvl f c0 d,
  hd d (table lvl cnt f c0) = f (cmerge lvl cnt c0 (fun _ => 0)).
Proof.
  induction cnt as [|k IH]; intros lvl f c0 d; [reflexivity|].
  rewrite table_S. pose proof (table_length k (S lvl) f (cset c0 lvl 0)) as Hl.
  destruct (table (S lvl) k f (cset c0 lvl 0)) as [|x t] eqn:Et.
  - simpl in Hl. pose proof (Nat.pow_nonzero 2 k ltac:(lia)). lia.
  - simpl. change x with (hd d (x :: t)). rewrite <- Et, IH. reflexivity.
Qed.

Lemma essential_norm : forall pr, essential (norm_pair pr) = essential pr.
Proof.
  intros [a b]. unfold norm_pair, essential. simpl. destruct (hd true a); simpl; [reflexivity|].
  destruct (bools_eqb a b) eqn:E.
  - apply bools_eqb_eq in E. subst. assert (X : bools_eqb (map negb b) (map negb b) = true)
      by (apply bools_eqb_eq; reflexivity). rewrite X. reflexivity.
  - destruct (bools_eqb (map negb a) (map negb b)) eqn:E'; [|reflexivity].
    apply bools_eqb_eq in E'. apply map_negb_inj in E'. subst.
    assert (X : bools_eqb b b = true) by (apply bools_eqb_eq; reflexivity). congruence.
Qed.

(** ** The correspondence *)

Lemma reachable_trans : forall s r x y, reachable s [r] x -> reachable s [x] y -> reachable s [r] y.
Proof.
  intros s r x y Hx Hy. induction Hy as [z Hz|id nd e Hp IH En He].
  - destruct Hz as [<-|[]]. exact Hx.
  - apply (reach_child s [r] id nd e IH En He).
Qed.

Section SubC.
Variable s : snap.
Hypothesis B : BcOK s.
Variable e0 : edge.
Variable phi : cfun.
Hypothesis D : DenC s e0 phi.

Let H : WF s := bc_wf s B.
Let Hphi := denc_ext_lt s e0 phi H D.

(** every reachable reference denotes, under a suitable tag, a subfunction *)
Theorem creachable_is_sub : forall x, reachable s [eref e0] x ->
  exists p t, bchoice p /\ DenC s (mkEdge x t) (sub phi (rlevel s x) p).
Proof.
  intros x Hx. induction Hx as [x Hr|id nd e Hp IH En He].
  - destruct Hr as [<-|[]]. exists (fun _ => 0), (etag e0). split; [apply bchoice_zero|].
    rewrite edge_eta. apply (denc_ext s e0 phi _ D). intros c Hc.
    apply sub_of_indep; [apply (denc_indep s e0 phi H D) | apply bchoice_zero | exact Hc].
  - destruct IH as [p [t [Hp0 Dn]]]. rewrite (rlevel_node s id nd En) in Dn.
    destruct (In_nth_error _ _ He) as [i Hi].
    pose proof (denc_child s (mkEdge (RN id) t) id nd i e _ B Dn eq_refl En Hi) as Dc. simpl etag in Dc.
    pose proof (child_index_b s H (bc_kind s B) id nd i e En Hi) as Hi2.
    destruct (child_nth s H id nd i e En Hi) as [_ Hlt].
    exists (cupd p (nlevel nd) i), (xorb t (etag e)). split; [apply bchoice_upd; assumption|].
    change (mkEdge (eref e) (xorb t (etag e))) with (retag t e).
    apply (denc_ext s _ _ _ Dc). intros c Hc.
    apply (sub_deeper _ _ Hphi); auto. apply (denc_indep s _ _ H Dc).
Qed.

(** every subfunction is denoted by a (possibly tagged) edge to a reachable reference *)
Theorem csub_is_reachable : forall L p, L <= nlevels s -> bchoice p ->
  exists x t, reachable s [eref e0] x /\ DenC s (mkEdge x t) (sub phi L p) /\ L <= rlevel s x.
Proof.
  induction L as [|L IH]; intros p HL Hp.
  - exists (eref e0), (etag e0). split; [apply reach_root; left; reflexivity|]. split; [|lia].
    rewrite edge_eta. apply (denc_ext s e0 phi _ D). intros c Hc. unfold sub.
    apply Hphi; [exact Hc | apply bchoice_glue; assumption | reflexivity].
  - destruct (IH p ltac:(lia) Hp) as [x [t [Rx [Dx Lx]]]].
    pose proof (fun c => sub_step _ _ Hphi L p c Hp) as Hstep.
    destruct (le_lt_eq_dec _ _ Lx) as [Hlt|Heq].
    + exists x, t. split; [exact Rx|]. split; [|lia].
      apply (denc_ext s _ _ _ (denc_skip s _ _ L (p L) H Dx Hlt (Hp L))). exact Hstep.
    + destruct x as [u|id]; [simpl in Heq; lia|].
      destruct (proj1 Dx) as [nd En]. simpl in En. rewrite (rlevel_node s id nd En) in Heq.
      assert (Hi : p L < arity (s_kind s)) by (rewrite (bc_kind s B); apply Hp).
      destruct (child_exists s H id nd (p L) En Hi) as [e He].
      destruct (child_nth s H id nd _ e En He) as [_ Hle].
      exists (eref e), (xorb t (etag e)).
      split; [apply (reach_child s [eref e0] id nd e Rx En (nth_error_In _ _ He))|].
      split; [|lia].
      pose proof (denc_child s (mkEdge (RN id) t) id nd (p L) e _ B Dx eq_refl En He) as Dc.
      simpl etag in Dc. rewrite <- Heq in Dc.
      change (mkEdge (eref e) (xorb t (etag e))) with (retag t e).
      apply (denc_ext s _ _ _ Dc). exact Hstep.
Qed.

(** ... at level [L] exactly when the subfunction depends on level [L] *)
Theorem csub_level_iff : forall L p e, L < nlevels s -> bchoice p ->
  DenC s e (sub phi L p) ->
  (rlevel s (eref e) = L <-> depends_on (sub phi L p) L).
Proof.
  intros L p e HL Hp De.
  assert (Lx : L <= rlevel s (eref e))
    by (apply (denc_level s e _ L B De); [lia | apply (sub_indep _ _ Hphi); exact Hp]).
  split.
  - intros Heq. destruct (eref e) as [u|id] eqn:Er; [simpl in Heq; lia|].
    pose proof (proj1 De) as O. rewrite Er in O. destruct O as [nd En].
    rewrite (rlevel_node s id nd En) in Heq.
    destruct (bcdd_children s id nd B En) as [a [b Ech]].
    assert (Ha : nth_error (nchildren nd) 0 = Some a) by (rewrite Ech; reflexivity).
    assert (Hb : nth_error (nchildren nd) 1 = Some b) by (rewrite Ech; reflexivity).
    pose proof (denc_child s e id nd 0 a _ B De Er En Ha) as Da.
    pose proof (denc_child s e id nd 1 b _ B De Er En Hb) as Db.
    rewrite Heq in Da, Db.
    intros Hsame.
    apply (proj1 (reduced_bcdd s (bc_kind s B) _ (wf_reduced s H id nd En))).
    intros u v Hu Hv. rewrite Ech in Hu, Hv.
    assert (Eab : a = b).
    { assert (Er2 : retag (etag e) a = retag (etag e) b).
      { apply (denc_canon s _ _ _ B Da). apply (denc_ext s _ _ _ Db).
        intros c Hc. symmetry. apply Hsame. exact Hc. }
      unfold retag in Er2. inversion Er2 as [[E1 E2]].
      apply edge_ext; [exact E1|]. destruct (etag e), (etag a), (etag b); simpl in E2; congruence. }
    destruct Hu as [<-|[<-|[]]], Hv as [<-|[<-|[]]]; congruence.
  - intros Hdep. destruct (le_lt_eq_dec _ _ Lx) as [Hlt|Heq]; [|symmetry; exact Heq].
    exfalso. apply Hdep. intros c Hc.
    apply (denc_indep s e _ H De); try (apply bchoice_upd; auto).
    intros l Hl. unfold cupd. destruct (Nat.eqb_spec l L); [lia | reflexivity].
Qed.

(** ** The count *)

(** the function of the untagged edge to a reference (true on the all-"then" choice) *)
Definition ufun (x : ref) : cfun := cfun_of s (mkEdge x false).

Lemma denc_ufun : forall x, ref_ok s x -> DenC s (mkEdge x false) (ufun x).
Proof. intros x O. apply (denc_cfun_of s (mkEdge x false) B O). Qed.

Lemma ufun_window : forall x, ref_ok s x -> window (nlevels s) (rlevel s x) (ufun x).
Proof.
  intros x O. pose proof (denc_ufun x O) as Dx.
  apply indep_window; [apply (denc_indep s _ _ H Dx) | apply (denc_ext_lt s _ _ H Dx)].
Qed.

(** the untagged edge denotes the subfunction or its complement, as the tag says *)
Lemma ufun_sub : forall x t L p, DenC s (mkEdge x t) (sub phi L p) ->
  forall c, bchoice c -> ufun x c = xorb t (sub phi L p c).
Proof.
  intros x t L p Dx c Hc. pose proof (denc_untag s _ _ Dx) as Du. simpl in Du.
  apply (denc_unique s _ _ _ (denc_ufun x (proj1 Dx)) Du c Hc).
Qed.

(** the tag is read off the value of the subfunction on the all-"then" choice *)
Lemma tag_of_sub : forall x t L p, DenC s (mkEdge x t) (sub phi L p) ->
  sub phi L p (fun _ => 0) = negb t.
Proof. intros x t L p Dx. apply (denc_all_then s _ _ B Dx). Qed.

Lemma table_xorb : forall cnt lvl (f : cfun) c0 t,
  table lvl cnt (fun c => xorb t (f c)) c0 = if t then map negb (table lvl cnt f c0) else table lvl cnt f c0.
Proof.
  intros cnt lvl f c0 [|].
  - rewrite <- table_negb. apply table_ext. intros q _. apply xorb_true_l.
  - apply table_ext. intros q _. apply xorb_false_l.
Qed.

(** the key of a reference is the normalised pair of the prefix: the untagged
    edge denotes the subfunction of [xorb t o phi], whose then-table starts
    with [true] (the value on the all-"then" choice) *)
Lemma ckey_is_pair : forall L p x t, L < nlevels s -> bchoice p -> DenC s (mkEdge x t) (sub phi L p) ->
  fkey (nlevels s) L (ufun x) = norm_pair (pair_at 0 L (nlevels s - S L) phi (fun _ => 0) p).
Proof.
  intros L p x t HL Hp Dx.
  assert (Ht : forall c c', bchoice c -> bchoice c' -> (forall l, l < nlevels s -> c l = c' l) ->
            xorb t (phi c) = xorb t (phi c')) by (intros c c' Hc Hc' E; f_equal; apply Hphi; assumption).
  rewrite (fkey_sub _ _ Ht L p (ufun x) HL Hp (ufun_sub x t L p Dx)), !pair_at_0, !table_xorb.
  assert (Hhd : hd true (table (S L) (nlevels s - S L) phi (cset (pre L p) L 0)) = negb t).
  { rewrite table_hd, <- (tag_of_sub x t L p Dx).
    symmetry. apply (sub_as_merge _ _ Hphi L p _ 0 HL Hp bchoice_zero); [lia | reflexivity]. }
  unfold norm_pair. simpl fst. simpl snd. rewrite Hhd. destruct t; reflexivity.
Qed.

Lemma nodes_count_bcdd : forall ns, NoDup ns ->
  (forall id, In id ns <-> reachable s [eref e0] (RN id) /\ find_node s id <> None) ->
  length ns = sum_upto (nlevels s) (fun L => level_nodes_c (nlevels s) L phi).
Proof.
  intros ns Nns Hns.
  apply (nodes_count s H (eref e0) phi (fun L p x => exists t, DenC s (mkEdge x t) (sub phi L p))
           (fun _ => ufun) essential norm_pair); try assumption.
  - intros id Hr. destruct (creachable_is_sub _ Hr) as [p [t [Hp Dp]]]. eauto.
  - intros L p HL Hp Hess. apply (essential_iff_depends _ _ Hphi L p HL Hp) in Hess.
    destruct (csub_is_reachable L p ltac:(lia) Hp) as [x [t [Rx [Dx Lx]]]].
    apply (csub_level_iff L p _ HL Hp Dx) in Hess. simpl eref in Hess.
    destruct x as [u|id]; [simpl in Hess; lia|]. exists id.
    destruct (proj1 Dx) as [nd En]. simpl in En.
    split; [exact Rx|]. split; [congruence|]. split; [exact Hess | exists t; exact Dx].
  - intros L p id HL Hp [t Dx] Lx. apply (essential_iff_depends _ _ Hphi L p HL Hp).
    apply (csub_level_iff L p _ HL Hp Dx). exact Lx.
  - intros L p id HL Hp [t Dx]. apply (ckey_is_pair L p _ t HL Hp Dx).
  - intros L p p' a b HL [t Da] [t' Db] La Lb Ek.
    assert (Hr : mkEdge (RN a) false = mkEdge (RN b) false); [|inversion Hr; reflexivity].
    apply (denc_canon s _ _ _ B (denc_ufun _ (proj1 Da))). apply (denc_ext s _ _ _ (denc_ufun _ (proj1 Db))).
    intros c Hc. symmetry. revert c Hc. apply (fkey_inj (nlevels s) L _ _ HL); [| |exact Ek].
    + rewrite <- La. apply ufun_window. apply Da.
    + rewrite <- Lb. apply ufun_window. apply Db.
Qed.

(** *** exactly one terminal is reachable *)

Lemma term_reachable : forall k x, ref_ok s x -> nlevels s - rlevel s x <= k ->
  exists t, reachable s [x] (RT t).
Proof.
  induction k as [|k IH]; intros x O Hk.
  - destruct x as [t|id]; [exists t; apply reach_root; left; reflexivity|].
    destruct O as [nd En]. rewrite (rlevel_node s id nd En) in Hk.
    pose proof (wf_level s H id nd En). lia.
  - destruct x as [t|id]; [exists t; apply reach_root; left; reflexivity|].
    destruct O as [nd En]. rewrite (rlevel_node s id nd En) in Hk.
    assert (Hi : 0 < arity (s_kind s)) by (rewrite (bc_kind s B); simpl; lia).
    destruct (child_exists s H id nd 0 En Hi) as [e He].
    destruct (child_nth s H id nd 0 e En He) as [Oe Le].
    destruct (IH (eref e) Oe ltac:(lia)) as [t Rt]. exists t.
    apply (reachable_trans s (RN id) (eref e) (RT t)); [|exact Rt].
    apply (reach_child s [RN id] id nd e); [apply reach_root; left; reflexivity | exact En |].
    apply (nth_error_In _ _ He).
Qed.

Lemma cterminals_count : forall ts, NoDup ts -> (forall t, In t ts <-> reachable s [eref e0] (RT t)) ->
  length ts = 1.
Proof.
  intros ts Nts Hts.
  destruct (term_reachable _ (eref e0) (proj1 D) (le_n _)) as [t0 R0].
  assert (H0 : In t0 ts) by (apply Hts; exact R0).
  assert (Hall : forall t, In t ts -> t = t0).
  { intros t Ht. apply Hts in Ht.
    destruct (creachable_is_sub _ Ht) as [_ [_ [_ [[v Ev] _]]]].
    destruct (creachable_is_sub _ R0) as [_ [_ [_ [[v0 Ev0] _]]]]. simpl in Ev, Ev0.
    apply (bcdd_one_term s t t0 v v0 (bc_kind s B) (bc_terms_kind s B) Ev Ev0). }
  destruct ts as [|a [|b ts']]; [destruct H0 | reflexivity|].
  exfalso. inversion Nts as [|? ? Ha _]; subst. apply Ha.
  rewrite (Hall a (or_introl eq_refl)), <- (Hall b (or_intror (or_introl eq_refl))). left. reflexivity.
Qed.

Theorem bcdd_count_is_canon_size : count_reach s e0 = canon_size_bcdd (nlevels s) phi.
Proof.
  destruct (count_reach_spec s (wf_arity_ok s H) e0) as [ns [ts [Nn [Nt [Hn [Ht Hc]]]]]].
  rewrite Hc. unfold canon_size_bcdd. f_equal. f_equal.
  - apply (nodes_count_bcdd ns Nn Hn).
  - apply (cterminals_count ts Nt Ht).
Qed.

End SubC.

(** for every existing edge of a well-formed BCDD table *)
Theorem bcdd_node_count_canon_size : forall s e, BcOK s -> ref_ok s (eref e) ->
  count_reach s e = canon_size_bcdd (nlevels s) (cfun_of s e).
Proof. intros s e B O. apply (bcdd_count_is_canon_size s B e _ (denc_cfun_of s e B O)). Qed.

(** and for the diagram [build_bcdd] constructs *)
Theorem build_bcdd_canon_size : forall v2l l2v f, order_ok v2l l2v ->
  exists s e, build_bcdd v2l l2v f = Some (s, e) /\ BcOK s /\
    count_reach s e = canon_size_bcdd (length l2v) (fun c => f (ctrunc (length l2v) c)).
Proof.
  intros v2l l2v f Ho. destruct (build_bcdd_ok v2l l2v f Ho) as [s [e [E0 [B [_ [El [_ D]]]]]]].
  exists s, e. split; [exact E0|]. split; [exact B|].
  assert (Hn : nlevels s = length l2v) by (unfold nlevels; rewrite El; reflexivity).
  rewrite <- Hn in *. apply (bcdd_count_is_canon_size s B e _ D).
Qed.

Example ex_canon_size_bcdd :
  canon_size_bcdd (nlevels ex_bcdd) (cfun_of ex_bcdd (mkEdge (RN 2) true)) = 3%N /\
  count_reach ex_bcdd (mkEdge (RN 2) true) = 3%N /\
  canon_size_bcdd 4 (lvl_fun [0; 1; 2; 3] (fun a => (a 0 && a 1) || (a 2 && a 3))) = 5%N /\
  canon_size_bcdd 4 (lvl_fun [0; 2; 1; 3] (fun a => (a 0 && a 1) || (a 2 && a 3))) = 7%N /\
  canon_size_bcdd 3 (fun _ => false) = 1%N.
Proof. vm_compute. repeat split; reflexivity. Qed.
