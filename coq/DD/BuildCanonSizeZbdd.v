(** * The textbook characterisation and count for ZBDDs

    A ZBDD reference denotes a family of sets of levels.  For the root family
    [PZ f 0 n] of a function [f] of the [n] levels, [Q L p] is the sub-family
    with the levels below [L] fixed to the choice [p] (a family of subsets of
    [L, n)).  With the zero-suppression rule

    - [zreachable_is_sub]: every reference reachable from the root denotes a
      sub-family [Q (its level) p];
    - [zsub_is_reachable]: every *non-empty* sub-family [Q L p] is denoted by a
      reachable reference at level [L] or deeper (the empty family is the Empty
      terminal, which need not be reachable);
    - [zsub_level_iff]: exactly at level [L] iff some member contains [L] (the
      "then" part is non-empty);
    - [zbdd_count_is_canon_size]: [count_reach s (E r) = canon_size_zbdd n f]
      ([canon_size_zbdd], DD/BuildCanon.v: per level the distinct cofactor-table
      pairs whose then-table is not all-false; the Base terminal iff the family
      is non-empty; the Empty terminal iff the family is empty or some node has
      an empty else-part). *)

From Coq Require Import List NArith PArith Bool Arith Lia FMapPositive.
From OxiVerif Require Import DD.Table DD.TableExtra DD.TableProofs DD.Canon DD.Sem DD.Build DD.BuildProofs
  DD.Apply DD.ApplyProofs DD.CanonZbdd DD.FamSpec DD.FamSpecProofs DD.ZbddOps DD.ZbddOpsProofs
  DD.ZbddBoolProofs DD.ZbddEvalProofs DD.Iso DD.BuildCanon DD.BuildCanonProofs DD.BuildCanonZbdd
  DD.ReachSpec DD.BuildCanonSub DD.BuildCanonSize.
Import ListNotations.

(** ** Choices and sets *)

Lemma bchoice_cs : forall S, bchoice (cs S).
Proof. intros S l. apply cs_lt2. Qed.

(** a table has a true entry iff the family is non-empty *)
Lemma any_true_PZ : forall cnt lvl f c0,
  any_true (table lvl cnt f c0) = true <-> exists T, PZ f lvl cnt c0 T.
Proof.
  intros cnt lvl f c0. unfold any_true. rewrite existsb_exists. split.
  - intros [b [Hin Hb]]. subst b. apply table_In in Hin. destruct Hin as [q [Hq Ev]].
    exists (true_levels q lvl cnt). split; [apply true_levels_incr|]. split; [apply true_levels_lt|].
    rewrite (cmerge_ext_range cnt lvl c0 (cs (true_levels q lvl cnt)) q); [symmetry; exact Ev|].
    intros l Hl. apply cs_true_levels; assumption.
  - intros [T [_ [_ Ev]]]. exists true. split; [|reflexivity].
    apply table_In. exists (cs T). split; [apply bchoice_cs | symmetry; exact Ev].
Qed.

Lemma exists_upto_spec : forall n g, exists_upto n g = true <-> exists L, L < n /\ g L = true.
Proof.
  induction n as [|n IH]; intros g; simpl.
  - split; [discriminate | intros [L [HL _]]; lia].
  - rewrite orb_true_iff, IH. split.
    + intros [[L [HL E]]|E]; [exists L; split; [lia | exact E] | exists n; split; [lia | exact E]].
    + intros [L [HL E]]. destruct (Nat.eq_dec L n) as [->|Hne]; [right; exact E | left; exists L; split; [lia | exact E]].
Qed.

(** a duplicate-free list of Booleans *)
Lemma bool_list_count : forall l : list bool, NoDup l ->
  length l = (if existsb (Bool.eqb true) l then 1 else 0) + (if existsb (Bool.eqb false) l then 1 else 0).
Proof.
  intros l N. destruct l as [|a [|b [|c r]]].
  - reflexivity.
  - destruct a; reflexivity.
  - inversion N as [|? ? Ha _]; subst. destruct a, b; simpl in *; try reflexivity; exfalso; apply Ha; auto.
  - exfalso. inversion N as [|? ? Ha N1]; subst. inversion N1 as [|? ? Hb _]; subst.
    destruct a, b, c; simpl in *; tauto.
Qed.

(** ** The correspondence *)

Section SubZ.
Variable s : snap.
Hypothesis B : ZbddOK s.
Variable r : ref.
Variable f : cfun.
Hypothesis Hf : levels_only (nlevels s) f.
Hypothesis D : ZDen s r (PZ f 0 (nlevels s) (fun _ => 0)).

Let H : WF s := zo_wf s B.

(** the sub-family with the levels below [L] fixed to [p] *)
Definition Q (L : nat) (p : nat -> nat) : fpred := PZ f L (nlevels s - L) (pre L p).

(** its then / else parts w.r.t. level [L] *)
Definition Qc (L : nat) (p : nat -> nat) (i : nat) : fpred :=
  PZ f (S L) (nlevels s - S L) (cset (pre L p) L i).

(** only the levels below [lvl] of the base choice matter *)
Lemma PZ_c0 : forall lvl cnt c0 c0', lvl + cnt = nlevels s -> (forall l, l < lvl -> c0 l = c0' l) ->
  peq (PZ f lvl cnt c0) (PZ f lvl cnt c0').
Proof.
  intros lvl cnt c0 c0' Hn E S. unfold PZ.
  rewrite (Hf (cmerge lvl cnt c0 (cs S)) (cmerge lvl cnt c0' (cs S))); [reflexivity|].
  intros l Hl. destruct (Nat.lt_ge_cases l lvl) as [Hlt|Hge].
  - rewrite !cmerge_out by lia. apply E. exact Hlt.
  - rewrite !cmerge_in by lia. reflexivity.
Qed.

Lemma Q_step : forall L p, L < nlevels s -> peq (node_pred L (Qc L p 0) (Qc L p 1)) (Q L p).
Proof.
  intros L p HL. unfold Q, Qc. replace (nlevels s - L) with (S (nlevels s - S L)) by lia.
  apply PZ_step.
Qed.

Lemma Q_next : forall L p, L < nlevels s -> peq (Q (S L) p) (Qc L p (p L)).
Proof.
  intros L p HL. unfold Q, Qc. apply PZ_c0; [lia|].
  intros l Hl. unfold pre, cset. rewrite cmerge_in by lia.
  destruct (Nat.eqb_spec l L); [subst; reflexivity | rewrite cmerge_in by lia; reflexivity].
Qed.

Lemma Qc_sup : forall L p i T, Qc L p i T -> incr_from (S L) T.
Proof. intros L p i T [Hi _]. exact Hi. Qed.

(** the base choice that is [c0] below [lvl] and "else" from there on *)
Definition low (lvl : nat) (c0 : nat -> nat) : nat -> nat := fun l => if l <? lvl then c0 l else 1.

Lemma bchoice_low : forall lvl c0, bchoice c0 -> bchoice (low lvl c0).
Proof. intros lvl c0 Hc l. unfold low. destruct (l <? lvl); [apply Hc | lia]. Qed.

(** a reference denoting a sub-family at [lvl] denotes the sub-family at its own level *)
Lemma zden_deeper : forall x lvl c0, lvl <= nlevels s ->
  ZDen s x (PZ f lvl (nlevels s - lvl) c0) ->
  lvl <= rlevel s x /\ ZDen s x (Q (rlevel s x) (low lvl c0)).
Proof.
  intros x lvl c0 Hl Dx.
  assert (Lx : lvl <= rlevel s x).
  { apply (zden_level s x _ lvl B Dx Hl). intros S [Hi _]. exact Hi. }
  split; [exact Lx|].
  pose proof (rlevel_le s H x) as Ln.
  set (L' := rlevel s x) in *.
  apply (zden_ext s x _ _ Dx). intros S. unfold Q, PZ.
  assert (X : incr_from L' S -> f (cmerge lvl (nlevels s - lvl) c0 (cs S))
                                = f (cmerge L' (nlevels s - L') (pre L' (low lvl c0)) (cs S))).
  { intros Hi. apply Hf. intros l Hln. destruct (Nat.lt_ge_cases l L') as [Hlt|Hge].
    - (* below [L']: [c0] below [lvl], then levels outside every member of [S] *)
      rewrite (cmerge_out _ L') by lia. unfold pre. rewrite (cmerge_in L' 0) by lia. unfold low.
      destruct (Nat.ltb_spec l lvl); [apply cmerge_out; lia|].
      rewrite cmerge_in by lia. apply cs_notin. apply (incr_from_notin S L' l Hi Hlt).
    - rewrite !cmerge_in by lia. reflexivity. }
  split.
  - intros HS. destruct (zden_support s x _ S B Dx HS) as [Hi Hfa]. fold L' in Hi.
    split; [exact Hi|]. split; [apply (forall_lt_weaken S _ _ Hfa); lia|].
    rewrite <- (X Hi). apply HS.
  - intros [Hi [Hfa Hv]]. split; [apply (incr_from_weaken S L'); [lia | exact Hi]|].
    split; [apply (forall_lt_weaken S _ _ Hfa); lia|].
    rewrite (X Hi). exact Hv.
Qed.

(** the children of a node denoting [Q L p] denote its then / else parts *)
Lemma znode_children : forall id nd p, find_node s id = Some nd ->
  ZDen s (RN id) (Q (nlevel nd) p) ->
  exists hi lo, nchildren nd = [hi; lo] /\
    ZDen s (eref hi) (Qc (nlevel nd) p 0) /\ ZDen s (eref lo) (Qc (nlevel nd) p 1).
Proof.
  intros id nd p En Dn. pose proof (wf_level s H id nd En) as HL.
  destruct (zden_node_inv s id nd _ B Dn En) as [hi [lo [PA [PB [Ec [DA [DB [LA [LB HP]]]]]]]]].
  exists hi, lo. split; [exact Ec|].
  destruct (node_pred_inj (nlevel nd) PA PB (Qc (nlevel nd) p 0) (Qc (nlevel nd) p 1)) as [HA HB].
  - intros T HT. apply (zden_below s _ PB _ T B DB LB HT).
  - intros T HT. apply (Qc_sup _ _ _ T HT).
  - intros S. rewrite <- (HP S). symmetry. apply (Q_step (nlevel nd) p HL).
  - split; [apply (zden_ext s _ PA _ DA HA) | apply (zden_ext s _ PB _ DB HB)].
Qed.

Theorem zreachable_is_sub : forall x, reachable s [r] x ->
  exists p, bchoice p /\ ZDen s x (Q (rlevel s x) p).
Proof.
  intros x Hx. induction Hx as [x Hr|id nd e Hp IH En He].
  - destruct Hr as [<-|[]]. exists (low 0 (fun _ => 0)). split; [apply bchoice_low, bchoice_zero|].
    apply (zden_deeper r 0 (fun _ => 0) ltac:(lia)). rewrite Nat.sub_0_r. exact D.
  - destruct IH as [p [Hp0 Dn]]. rewrite (rlevel_node s id nd En) in Dn.
    pose proof (wf_level s H id nd En) as HL.
    destruct (znode_children id nd p En Dn) as [hi [lo [Ec [Dh Dl]]]].
    rewrite Ec in He. destruct He as [<-|[<-|[]]].
    + exists (low (S (nlevel nd)) (cset (pre (nlevel nd) p) (nlevel nd) 0)).
      split; [apply bchoice_low, bchoice_cset; [apply bchoice_pre; exact Hp0 | lia]|].
      apply (zden_deeper (eref hi) (S (nlevel nd)) _ ltac:(lia) Dh).
    + exists (low (S (nlevel nd)) (cset (pre (nlevel nd) p) (nlevel nd) 1)).
      split; [apply bchoice_low, bchoice_cset; [apply bchoice_pre; exact Hp0 | lia]|].
      apply (zden_deeper (eref lo) (S (nlevel nd)) _ ltac:(lia) Dl).
Qed.

(** every non-empty sub-family is denoted by a reachable reference *)
Theorem zsub_is_reachable : forall L p, L <= nlevels s -> bchoice p -> (exists S0, Q L p S0) ->
  exists x, reachable s [r] x /\ ZDen s x (Q L p) /\ L <= rlevel s x.
Proof.
  induction L as [|L IH]; intros p HL Hp [S0 HS0].
  - exists r. split; [apply reach_root; left; reflexivity|]. split; [|lia].
    unfold Q. rewrite Nat.sub_0_r. exact D.
  - assert (HL' : L < nlevels s) by lia.
    pose proof (proj1 (Q_next L p HL' S0) HS0) as HS1.
    (* the sub-family one level up is non-empty too *)
    assert (Hne : exists S1, Q L p S1).
    { pose proof (Hp L) as H2. destruct (p L) as [|[|j]] eqn:Ep; [| |lia].
      - exists (L :: S0). apply (Q_step L p HL'). left. exists S0. auto.
      - exists S0. apply (Q_step L p HL'). right. exact HS1. }
    destruct (IH p ltac:(lia) Hp Hne) as [x [Rx [Dx Lx]]].
    destruct (le_lt_eq_dec _ _ Lx) as [Hlt|Heq].
    + (* [x] lies deeper: no member contains [L], so the then-part is empty and [p] goes "else" *)
      assert (Hno : forall T, ~ Qc L p 0 T).
      { intros T HT. assert (HQ : Q L p (L :: T)) by (apply (Q_step L p HL'); left; exists T; auto).
        destruct (zden_support s x _ _ B Dx HQ) as [Hi _]. simpl in Hi. lia. }
      pose proof (Hp L) as H2. destruct (p L) as [|[|j]] eqn:Ep; [exfalso; apply (Hno S0 HS1) | |lia].
      exists x. split; [exact Rx|]. split; [|lia].
      apply (zden_ext s x _ _ Dx). intros S. rewrite (Q_next L p HL' S), Ep, <- (Q_step L p HL' S).
      unfold node_pred. split; [|auto]. intros [[T [_ HT]]|HS]; [destruct (Hno T HT) | exact HS].
    + destruct x as [t|id]; [simpl in Heq; lia|].
      destruct (zden_ok _ _ _ Dx) as [nd En]. rewrite (rlevel_node s id nd En) in Heq. subst L.
      destruct (znode_children id nd p En Dx) as [hi [lo [Ec [Dh Dl]]]].
      pose proof (Hp (nlevel nd)) as H2. destruct (p (nlevel nd)) as [|[|j]] eqn:Ep; [| |lia].
      * exists (eref hi). split; [apply (reach_child s [r] id nd hi Rx En); rewrite Ec; left; reflexivity|].
        split.
        -- apply (zden_ext s _ _ _ Dh). intros S. rewrite (Q_next (nlevel nd) p HL' S), Ep. reflexivity.
        -- apply (zden_level s _ _ (S (nlevel nd)) B Dh); [lia | apply Qc_sup].
      * exists (eref lo).
        split; [apply (reach_child s [r] id nd lo Rx En); rewrite Ec; right; left; reflexivity|].
        split.
        -- apply (zden_ext s _ _ _ Dl). intros S. rewrite (Q_next (nlevel nd) p HL' S), Ep. reflexivity.
        -- apply (zden_level s _ _ (S (nlevel nd)) B Dl); [lia | apply Qc_sup].
Qed.

(** ... exactly at level [L] iff the then-part is non-empty *)
Theorem zsub_level_iff : forall L p x, L < nlevels s -> ZDen s x (Q L p) ->
  (rlevel s x = L <-> exists T, Qc L p 0 T).
Proof.
  intros L p x HL Dx.
  assert (Lx : L <= rlevel s x).
  { apply (zden_level s x _ L B Dx); [lia|]. intros S [Hi _]. exact Hi. }
  split.
  - intros Heq. destruct x as [t|id]; [simpl in Heq; lia|].
    destruct (zden_ok _ _ _ Dx) as [nd En]. rewrite (rlevel_node s id nd En) in Heq. subst L.
    destruct (znode_children id nd p En Dx) as [hi [lo [Ec [Dh _]]]].
    (* the then-child is not the Empty terminal, so its family has a member *)
    assert (Hnh : forall t, eref hi = RT t -> term_val s t <> Some 0%N).
    { destruct (reduced_zbdd s (zo_kind s B) _ (wf_reduced s H id nd En)) as [h [Hh1 Hh2]].
      rewrite Ec in Hh1. simpl in Hh1. inversion Hh1; subst h. exact Hh2. }
    destruct (fam_nonempty s B _ (eref hi) (zden_ok _ _ _ Dh) (le_n _) Hnh) as [F [T [EF [HT _]]]].
    exists T. destruct Dh as [_ [F' [EF' HF']]]. rewrite EF in EF'. inversion EF'; subst F'.
    apply HF'. exact HT.
  - intros [T HT]. assert (HQ : Q L p (L :: T)) by (apply (Q_step L p HL); left; exists T; auto).
    destruct (zden_support s x _ _ B Dx HQ) as [Hi _]. simpl in Hi. lia.
Qed.

End SubZ.

(** ** The count *)

Section CountZ.
Variable s : snap.
Hypothesis B : ZbddOK s.
Variable r : ref.
Variable f : cfun.
Hypothesis Hf : levels_only (nlevels s) f.
Hypothesis D : ZDen s r (PZ f 0 (nlevels s) (fun _ => 0)).

Let H : WF s := zo_wf s B.

(** the characteristic function of the family of [x], seen from level [L] *)
Definition zf (L : nat) (x : ref) : cfun :=
  fun c => match fam_of s x with
           | Some F => fmem (true_levels c L (nlevels s - L)) F
           | None => false
           end.

Lemma zf_den : forall L x (P : fpred) c, ZDen s x P ->
  (zf L x c = true <-> P (true_levels c L (nlevels s - L))).
Proof. intros L x P c [_ [F [EF HF]]]. unfold zf. rewrite EF, fmem_spec. apply HF. Qed.

Lemma zf_window : forall L x, window (nlevels s) L (zf L x).
Proof.
  intros L x c c' _ _ E. unfold zf.
  rewrite (true_levels_ext c c' (nlevels s - L) L); [reflexivity|]. intros l Hl. apply E. lia.
Qed.

Lemma zf_sub : forall L p x c, L <= nlevels s -> ZDen s x (Q s f L p) -> bchoice c ->
  zf L x c = sub f L p c.
Proof.
  intros L p x c HL Dx Hc. set (T := true_levels c L (nlevels s - L)).
  apply (bool_iff_eq _ _ (Q s f L p T)); [apply (zf_den L x _ c Dx)|].
  unfold Q, PZ, sub. rewrite (Hf (cmerge L (nlevels s - L) (pre L p) (cs T)) (glue L p c)).
  - split; [|intros [_ [_ Hv]]; exact Hv].
    intros Hv. split; [apply true_levels_incr|]. split; [apply true_levels_lt | exact Hv].
  - intros l Hl. unfold glue. destruct (Nat.ltb_spec l L).
    + rewrite cmerge_out by lia. apply cmerge_in. lia.
    + rewrite cmerge_in by lia. apply cs_true_levels; [exact Hc | lia].
Qed.

Lemma zkey_is_pair : forall L p x, L < nlevels s -> bchoice p -> ZDen s x (Q s f L p) ->
  fkey (nlevels s) L (zf L x) = pair_at 0 L (nlevels s - S L) f (fun _ => 0) p.
Proof.
  intros L p x HL Hp Dx. apply (fkey_sub (nlevels s) f (fun c c' _ _ => Hf c c') L p _ HL Hp).
  intros c Hc. apply (zf_sub L p x c ltac:(lia) Dx Hc).
Qed.

Lemma hi_nonempty_iff : forall L p,
  hi_nonempty (pair_at 0 L (nlevels s - S L) f (fun _ => 0) p) = true <-> exists T, Qc s f L p 0 T.
Proof. intros L p. rewrite pair_at_0. apply any_true_PZ. Qed.

Lemma lo_empty_iff : forall L p,
  any_true (snd (pair_at 0 L (nlevels s - S L) f (fun _ => 0) p)) = false <-> forall T, ~ Qc s f L p 1 T.
Proof.
  intros L p. rewrite pair_at_0. simpl snd. rewrite <- not_true_iff_false, any_true_PZ. split.
  - intros Hno T HT. apply Hno. exists T. exact HT.
  - intros Hno [T HT]. apply (Hno T HT).
Qed.

Lemma zf_inj : forall L x y (Px Py : fpred), ZDen s x Px -> ZDen s y Py -> rlevel s x = L ->
  (forall c, bchoice c -> zf L x c = zf L y c) -> forall M, Px M -> Py M.
Proof.
  intros L x y Px Py Dx Dy Lx E M HS.
  destruct (zden_support s x Px M B Dx HS) as [Hi Hfa]. rewrite Lx in Hi.
  pose proof (rlevel_le s H x) as Ln. rewrite Lx in Ln.
  assert (HT : true_levels (cs M) L (nlevels s - L) = M).
  { apply (true_levels_cs _ L M Hi). apply (forall_lt_weaken M _ _ Hfa). lia. }
  rewrite <- HT. apply (zf_den L y Py (cs M) Dy). rewrite <- (E (cs M) (bchoice_cs M)).
  apply (zf_den L x Px (cs M) Dx). rewrite HT. exact HS.
Qed.

Lemma znode_of_hi : forall L p, L < nlevels s -> bchoice p -> (exists T, Qc s f L p 0 T) ->
  exists id nd, reachable s [r] (RN id) /\ find_node s id = Some nd /\ nlevel nd = L /\
                ZDen s (RN id) (Q s f L p).
Proof.
  intros L p HL Hp Hhi.
  assert (Hne : exists S0, Q s f L p S0).
  { destruct Hhi as [T HT]. exists (L :: T). apply (Q_step s f L p HL). left. exists T. auto. }
  destruct (zsub_is_reachable s B r f Hf D L p ltac:(lia) Hp Hne) as [x [Rx [Dx Lx]]].
  apply (zsub_level_iff s B f L p x HL Dx) in Hhi.
  destruct x as [t|id]; [simpl in Hhi; lia|].
  destruct (zden_ok _ _ _ Dx) as [nd En]. rewrite (rlevel_node s id nd En) in Hhi.
  exists id, nd. auto.
Qed.

Lemma nodes_count_zbdd : forall ns, NoDup ns ->
  (forall id, In id ns <-> reachable s [r] (RN id) /\ find_node s id <> None) ->
  length ns = sum_upto (nlevels s) (fun L => level_nodes_z (nlevels s) L f).
Proof.
  intros ns Nns Hns.
  rewrite (nodes_count s H r f (fun L p x => ZDen s x (Q s f L p)) zf hi_nonempty (fun k => k))
    with (ns := ns); try assumption.
  - apply sum_upto_ext. intros L _. unfold level_nodes_z. rewrite map_id. reflexivity.
  - intros id Hr. apply (zreachable_is_sub s B r f Hf D _ Hr).
  - intros L p HL Hp Hhi. apply hi_nonempty_iff in Hhi.
    destruct (znode_of_hi L p HL Hp Hhi) as [id [nd [Rx [En [Ll Dx]]]]]. exists id.
    split; [exact Rx|]. split; [congruence|]. split; [rewrite (rlevel_node s id nd En); exact Ll | exact Dx].
  - intros L p id HL Hp Dx Lx. apply hi_nonempty_iff. apply (zsub_level_iff s B f L p _ HL Dx). exact Lx.
  - intros L p id HL Hp Dx. apply (zkey_is_pair L p _ HL Hp Dx).
  - intros L p p' a b HL Da Db La Lb Ek.
    pose proof (fkey_inj (nlevels s) L _ _ HL (zf_window L _) (zf_window L _) Ek) as E.
    assert (Hr : RN a = RN b); [|inversion Hr; reflexivity].
    apply (zden_canon s _ _ _ _ B Da Db). intros S. split.
    + apply (zf_inj L _ _ _ _ Da Db La E).
    + apply (zf_inj L _ _ _ _ Db Da Lb). intros c Hc. symmetry. apply E. exact Hc.
Qed.

(** *** terminals *)

(** a terminal's value: Base iff its family contains the empty set *)
Lemma zterm_valb : forall t (P : fpred), ZDen s (RT t) P -> (valb s t = true <-> P []).
Proof.
  intros t P Dt. unfold valb.
  destruct (zterm_cases s t B (zden_ok _ _ _ Dt)) as [E|E]; rewrite E.
  - pose proof (zden_unique s _ P pempty Dt (zden_empty s t B E)) as Hq.
    split; [discriminate | intros HP; destruct (proj1 (Hq []) HP)].
  - pose proof (zden_unique s _ P pbase Dt (zden_base s t B E)) as Hq.
    split; [intros _; apply (proj2 (Hq [])); reflexivity | reflexivity].
Qed.

Lemma zterm_empty : forall t (P : fpred), ZDen s (RT t) P -> valb s t = false -> forall S, ~ P S.
Proof.
  intros t P Dt Ev S HS. unfold valb in Ev.
  destruct (zterm_cases s t B (zden_ok _ _ _ Dt)) as [E|E]; rewrite E in Ev; [|discriminate].
  apply (proj1 (zden_unique s _ P pempty Dt (zden_empty s t B E) S) HS).
Qed.

(** a reference whose family is empty is the Empty terminal *)
Lemma zempty_ref : forall x (P : fpred), ZDen s x P -> (forall S, ~ P S) ->
  exists t, x = RT t /\ valb s t = false.
Proof.
  intros x P Dx Hno. destruct (zo_empty s B) as [t0 E0].
  exists t0. split.
  - apply (zden_canon s x (RT t0) P pempty B Dx (zden_empty s t0 B E0)).
    intros S. unfold pempty. split; [apply Hno | tauto].
  - unfold valb. rewrite E0. reflexivity.
Qed.

Lemma Q_top : forall p, Q s f (nlevels s) p [] <-> f (pre (nlevels s) p) = true.
Proof.
  intros p. unfold Q. rewrite Nat.sub_diag. rewrite PZ_zero. tauto.
Qed.

Lemma base_iff : (exists t, reachable s [r] (RT t) /\ valb s t = true) <->
  any_true (table 0 (nlevels s) f (fun _ => 0)) = true.
Proof.
  split.
  - intros [t [Rt Ev]].
    destruct (zreachable_is_sub s B r f Hf D _ Rt) as [p [Hp Dp]]. simpl rlevel in Dp.
    apply (zterm_valb t _ Dp) in Ev. apply Q_top in Ev.
    unfold any_true. apply existsb_exists. exists true. split; [|reflexivity].
    apply table_In. exists p. split; [exact Hp | symmetry; exact Ev].
  - intros Hany. apply any_true_PZ in Hany. destruct Hany as [T [_ [_ Ev]]].
    assert (Hne : exists S0, Q s f (nlevels s) (cs T) S0) by (exists []; apply Q_top; exact Ev).
    destruct (zsub_is_reachable s B r f Hf D (nlevels s) (cs T) (le_n _) (bchoice_cs T) Hne) as [x [Rx [Dx Lx]]].
    destruct x as [t|id].
    + exists t. split; [exact Rx|]. apply (zterm_valb t _ Dx). apply Q_top. exact Ev.
    + exfalso. destruct (zden_ok _ _ _ Dx) as [nd En]. rewrite (rlevel_node s id nd En) in Lx.
      pose proof (wf_level s H id nd En). lia.
Qed.

Lemma empty_iff : (exists t, reachable s [r] (RT t) /\ valb s t = false) <->
  negb (any_true (table 0 (nlevels s) f (fun _ => 0)))
  || exists_upto (nlevels s) (fun L => lo_empty_at (nlevels s) L f) = true.
Proof.
  rewrite orb_true_iff, negb_true_iff, exists_upto_spec. split.
  - intros [t [Rt Ev]]. inversion Rt as [x Hr|id nd e Hp En He Ee]; subst.
    + (* the root itself *)
      destruct Hr as [->|[]]. left.
      destruct (any_true _) eqn:E; [|reflexivity]. apply any_true_PZ in E. destruct E as [T HT].
      destruct (zterm_empty t _ D Ev T HT).
    + (* a child of a reachable node: the else-child *)
      right. destruct (zreachable_is_sub s B r f Hf D _ Hp) as [p [Hp0 Dn]].
      rewrite (rlevel_node s id nd En) in Dn. pose proof (wf_level s H id nd En) as HL.
      destruct (znode_children s B f id nd p En Dn) as [hi [lo [Ec [Dh Dl]]]].
      assert (Hhi : exists T, Qc s f (nlevel nd) p 0 T)
        by (apply (zsub_level_iff s B f (nlevel nd) p (RN id) HL Dn); apply (rlevel_node s id nd En)).
      rewrite Ec in He. destruct He as [<-|[<-|[]]].
      * exfalso. destruct Hhi as [T HT]. rewrite Ee in Dh. apply (zterm_empty t _ Dh Ev T HT).
      * exists (nlevel nd). split; [exact HL|]. unfold lo_empty_at. apply existsb_exists.
        exists (pair_at 0 (nlevel nd) (nlevels s - S (nlevel nd)) f (fun _ => 0) p).
        split; [apply subpairs_In; exists p; auto|].
        apply andb_true_iff. split; [apply hi_nonempty_iff; exact Hhi|].
        apply negb_true_iff. apply lo_empty_iff. rewrite Ee in Dl. apply (zterm_empty t _ Dl Ev).
  - intros [Hnone|[L [HL Hlo]]].
    + (* the whole family is empty: the root is the Empty terminal *)
      assert (Hno : forall S, ~ PZ f 0 (nlevels s) (fun _ => 0) S).
      { intros S HS. assert (X : any_true (table 0 (nlevels s) f (fun _ => 0)) = true)
          by (apply any_true_PZ; exists S; exact HS). congruence. }
      destruct (zempty_ref r _ D Hno) as [t [-> Ev]].
      exists t. split; [apply reach_root; left; reflexivity | exact Ev].
    + unfold lo_empty_at in Hlo. apply existsb_exists in Hlo. destruct Hlo as [pr [Hin Hc]].
      apply subpairs_In in Hin. destruct Hin as [q [Hq ->]].
      apply andb_true_iff in Hc. destruct Hc as [Hhi Hlo]. apply negb_true_iff in Hlo.
      apply hi_nonempty_iff in Hhi. pose proof (proj1 (lo_empty_iff L q) Hlo) as Hlo'. clear Hlo.
      destruct (znode_of_hi L q HL Hq Hhi) as [id [nd [Rx [En [<- Dx]]]]].
      destruct (znode_children s B f id nd q En Dx) as [hi [lo [Ec [_ Dl]]]].
      destruct (zempty_ref (eref lo) _ Dl Hlo') as [t [Et Ev]].
      exists t. split; [|exact Ev]. rewrite <- Et.
      apply (reach_child s [r] id nd lo Rx En). rewrite Ec. right. left. reflexivity.
Qed.

Lemma zterminals_count : forall ts, NoDup ts -> (forall t, In t ts <-> reachable s [r] (RT t)) ->
  length ts =
  (if any_true (table 0 (nlevels s) f (fun _ => 0)) then 1 else 0)
  + (if negb (any_true (table 0 (nlevels s) f (fun _ => 0)))
        || exists_upto (nlevels s) (fun L => lo_empty_at (nlevels s) L f) then 1 else 0).
Proof.
  intros ts Nts Hts.
  assert (Nv : NoDup (map (valb s) ts)).
  { apply NoDup_map_inj; [exact Nts|]. intros t u Ht Hu Ev.
    apply Hts in Ht. apply Hts in Hu.
    destruct (zreachable_is_sub s B r f Hf D _ Ht) as [p [_ Dt]].
    destruct (zreachable_is_sub s B r f Hf D _ Hu) as [p' [_ Du]].
    destruct (zden_ok _ _ _ Dt) as [v Et]. destruct (zden_ok _ _ _ Du) as [w Eu].
    apply (term_val_inj s t u v H Et). rewrite Eu. f_equal. unfold valb in Ev. rewrite Et, Eu in Ev.
    destruct (zo_codes s B t v Et) as [->| ->], (zo_codes s B u w Eu) as [->| ->];
      try reflexivity; discriminate. }
  assert (Hv : forall v, existsb (Bool.eqb v) (map (valb s) ts) = true <->
                         exists t, reachable s [r] (RT t) /\ valb s t = v).
  { intros v. rewrite (existsb_eqb_In _ Bool.eqb Bool.eqb_true_iff), in_map_iff.
    split; intros [t [A C]]; exists t; [split; [apply Hts; exact C | exact A] | split; [exact C | apply Hts; exact A]]. }
  rewrite <- (map_length (valb s) ts), (bool_list_count _ Nv).
  rewrite (bool_iff_eq _ _ _ (Hv true) (iff_sym base_iff)), (bool_iff_eq _ _ _ (Hv false) (iff_sym empty_iff)).
  reflexivity.
Qed.

Theorem zbdd_count_is_canon_size : count_reach s (E r) = canon_size_zbdd (nlevels s) f.
Proof.
  destruct (count_reach_spec s (wf_arity_ok s H) (E r)) as [ns [ts [Nn [Nt [Hn [Ht Hc]]]]]].
  simpl eref in *. rewrite Hc. unfold canon_size_zbdd. cbv zeta. f_equal.
  rewrite (nodes_count_zbdd ns Nn Hn), (zterminals_count ts Nt Ht). lia.
Qed.

End CountZ.

(** the Boolean function of a ZBDD handle depends on the levels of the table only *)
Lemma cfun_of_levels_only_zbdd : forall s e, ZbddOK s -> levels_only (nlevels s) (cfun_of s e).
Proof.
  intros s e B c c' E. unfold cfun_of. rewrite !(sem_edge_zbdd_code s e _ (zo_kind s B)).
  rewrite (semz_ext_lt s (zo_wf s B) _ 0 (eref e) c c'); [reflexivity|]. intros l Hl. apply E. lia.
Qed.

(** for every existing edge of a well-formed ZBDD table *)
Theorem zbdd_node_count_canon_size : forall s e, ZbddOK s -> ref_ok s (eref e) ->
  count_reach s e = canon_size_zbdd (nlevels s) (cfun_of s e).
Proof.
  intros s e B O.
  assert (Ec : count_reach s e = count_reach s (E (eref e))) by reflexivity.
  rewrite Ec. apply (zbdd_count_is_canon_size s B (eref e) _ (cfun_of_levels_only_zbdd s e B)
                       (cfun_of_den_zbdd s e B O)).
Qed.

(** and for the diagram [build_zbdd] constructs, for a function of the [n] levels *)
Theorem build_zbdd_canon_size : forall v2l l2v f, order_ok v2l l2v -> levels_only (length l2v) f ->
  exists s e, build_zbdd v2l l2v f = Some (s, e) /\ ZbddOK s /\
    count_reach s e = canon_size_zbdd (length l2v) f.
Proof.
  intros v2l l2v f Ho Lf. destruct (build_zbdd_ok v2l l2v f Ho) as [s [e [E0 [B [_ [El [_ [Et D]]]]]]]].
  exists s, e. split; [exact E0|]. split; [exact B|].
  assert (Hn : nlevels s = length l2v) by (unfold nlevels; rewrite El; reflexivity).
  rewrite <- Hn in *.
  replace e with (E (eref e)) by (destruct e as [x t]; simpl in *; subst; reflexivity).
  apply (zbdd_count_is_canon_size s B (eref e) f Lf D).
Qed.

Example ex_canon_size_zbdd :
  canon_size_zbdd (nlevels ex_zbdd) (cfun_of ex_zbdd (ex_edge (RN 2))) = 4%N /\
  count_reach ex_zbdd (ex_edge (RN 2)) = 4%N /\
  canon_size_zbdd 4 (lvl_fun [0; 1; 2; 3] (fun a => (a 0 && a 1) || (a 2 && a 3))) = 9%N /\
  canon_size_zbdd 4 (lvl_fun [0; 2; 1; 3] (fun a => (a 0 && a 1) || (a 2 && a 3))) = 10%N /\
  canon_size_zbdd 3 (fun _ => false) = 1%N /\
  canon_size_zbdd 3 (fun c => Nat.eqb (c 0) 1 && Nat.eqb (c 1) 1 && Nat.eqb (c 2) 1) = 1%N.
Proof. vm_compute. repeat split; reflexivity. Qed.
