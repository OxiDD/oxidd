(** * The textbook characterisation of the reduced ordered BDD (BDD kind)

    "The nodes of the reduced ordered BDD of [phi] labelled with the variable
    of level [L] correspond one-to-one to the distinct subfunctions of [phi],
    obtained by fixing the levels above [L], that depend on level [L]; the
    terminals to the distinct constant subfunctions."

    For a reference [r] of a well-formed BDD table that denotes [phi]:

    - [sub phi L p]: the subfunction of [phi] with the levels below [L] fixed
      to the choice [p];
    - [reachable_is_sub]: every reference reachable from [r] denotes a
      subfunction, with the levels above its own level fixed;
    - [sub_is_reachable]: every subfunction (any [L <= n], any [p]) is denoted
      by a reference reachable from [r], lying at level [L] or deeper;
    - [sub_level_iff]: that reference lies exactly at level [L] iff the
      subfunction depends on level [L];
    - one reference per function: [den_canon] (DD/ApplyProofs.v).

    Together with [count_reach_spec] (DD/ReachSpec.v: [count_reach] counts the
    reachable references) this says what the node count of a handle counts.
    Through [bdd_count_is_build] it applies to the diagram [build_bdd]
    constructs as well as to every handle of every well-formed table. *)

From Coq Require Import List NArith PArith Bool Arith Lia FMapPositive.
From OxiVerif Require Import DD.Table DD.TableProofs DD.Canon DD.Sem DD.Build DD.BuildProofs
  DD.Apply DD.ApplyProofs DD.Iso DD.BuildCanon DD.BuildCanonProofs.
Import ListNotations.

(** the choice that follows [p] on the levels below [L] and [c] from [L] on *)
Definition glue (L : nat) (p c : nat -> nat) : nat -> nat :=
  fun l => if l <? L then p l else c l.

(** the subfunction of [phi] with the levels below [L] fixed to [p] *)
Definition sub (phi : cfun) (L : nat) (p : nat -> nat) : cfun := fun c => phi (glue L p c).

(** [g] gives the same value whichever child is taken at level [L] *)
Definition ignores (g : cfun) (L : nat) : Prop :=
  forall c, bchoice c -> g (cupd c L 0) = g (cupd c L 1).

(** [g] depends on level [L] (stated negatively: no witness search, no classical axiom) *)
Definition depends_on (g : cfun) (L : nat) : Prop := ~ ignores g L.

Lemma bchoice_glue : forall L p c, bchoice p -> bchoice c -> bchoice (glue L p c).
Proof. intros L p c Hp Hc l. unfold glue. destruct (l <? L); auto. Qed.

(** ** Subfunctions of a function that reads [n] levels

    Everything about [sub] that does not mention a table; shared by the BDD
    and the complement-edge kind. *)

Section SubFun.
Variable n : nat.
Variable phi : cfun.
Hypothesis Hphi : forall c c', bchoice c -> bchoice c' -> (forall l, l < n -> c l = c' l) -> phi c = phi c'.

Lemma sub_pointwise : forall L p p' c c', bchoice p -> bchoice p' -> bchoice c -> bchoice c' ->
  (forall l, l < L -> p l = p' l) -> (forall l, L <= l -> c l = c' l) ->
  sub phi L p c = sub phi L p' c'.
Proof.
  intros L p p' c c' Hp Hp' Hc Hc' Ep Ec. unfold sub.
  apply Hphi; try (apply bchoice_glue; assumption).
  intros l _. unfold glue. destruct (Nat.ltb_spec l L); [apply Ep | apply Ec]; lia.
Qed.

Lemma sub_indep : forall L p, bchoice p -> indep (sub phi L p) L.
Proof. intros L p Hp c c' Hc Hc' E. apply sub_pointwise; auto. Qed.

(** a function that ignores the levels below [L] is its own subfunction *)
Lemma sub_of_indep : forall L p c, indep phi L -> bchoice p -> bchoice c -> phi c = sub phi L p c.
Proof.
  intros L p c I Hp Hc. apply I; [exact Hc | apply bchoice_glue; assumption|].
  intros l Hl. unfold glue. destruct (Nat.ltb_spec l L); [lia | reflexivity].
Qed.

Lemma sub_step : forall L p c, bchoice p -> bchoice c ->
  cofn (sub phi L p) L (p L) c = sub phi (S L) p c.
Proof.
  intros L p c Hp Hc. unfold cofn, sub. apply Hphi.
  - apply bchoice_glue; [exact Hp | apply bchoice_upd; auto].
  - apply bchoice_glue; assumption.
  - intros l _. unfold glue, cupd.
    destruct (Nat.ltb_spec l L), (Nat.ltb_spec l (S L)), (Nat.eqb_spec l L); subst; try reflexivity; lia.
Qed.

Lemma sub_deeper : forall L L' p i c, L < L' -> bchoice p -> i < 2 -> bchoice c ->
  indep (cofn (sub phi L p) L i) L' ->
  cofn (sub phi L p) L i c = sub phi L' (cupd p L i) c.
Proof.
  intros L L' p i c HL Hp Hi Hc I.
  assert (Hq : bchoice (cupd p L i)) by (apply bchoice_upd; assumption).
  (* move to the glued choice, on which the cofactor is [phi] directly *)
  rewrite (I c (glue L' (cupd p L i) c) Hc (bchoice_glue _ _ _ Hq Hc))
    by (intros l Hl; unfold glue; destruct (Nat.ltb_spec l L'); [lia | reflexivity]).
  unfold cofn, sub. apply Hphi.
  - apply bchoice_glue; [exact Hp | apply bchoice_upd; [apply bchoice_glue|]; assumption].
  - apply bchoice_glue; assumption.
  - intros l _. unfold glue, cupd.
    destruct (Nat.ltb_spec l L), (Nat.ltb_spec l L'), (Nat.eqb_spec l L); subst; try reflexivity; lia.
Qed.

End SubFun.

Section Sub.
Variable s : snap.
Hypothesis B : BddOK s.
Variable r : ref.
Variable phi : cfun.
Hypothesis D : Den s r phi.

Let H : WF s := bo_wf s B.
Let Hphi := den_ext_lt s r phi H D.

(** ** Reachable references denote subfunctions *)

Theorem reachable_is_sub : forall x, reachable s [r] x ->
  exists p, bchoice p /\ Den s x (sub phi (rlevel s x) p).
Proof.
  intros x Hx. induction Hx as [x Hr|id nd e Hp IH En He].
  - destruct Hr as [<-|[]]. exists (fun _ => 0). split; [intros l; lia|].
    apply (den_ext s r phi _ D). intros c Hc.
    apply sub_of_indep; [apply (den_indep s r phi H D) | intros l; lia | exact Hc].
  - destruct IH as [p [Hp0 Dn]]. rewrite (rlevel_node s id nd En) in Dn.
    destruct (In_nth_error _ _ He) as [i Hi].
    pose proof (den_child s id nd i e _ B Dn En Hi) as Dc.
    pose proof (child_index s H id nd i e En Hi) as Hi2. rewrite (bo_kind s B) in Hi2.
    destruct (child_nth s H id nd i e En Hi) as [_ Hlt].
    exists (cupd p (nlevel nd) i). split; [apply bchoice_upd; assumption|].
    apply (den_ext s (eref e) _ _ Dc). intros c Hc.
    apply (sub_deeper _ _ Hphi); auto. apply (den_indep s (eref e) _ H Dc).
Qed.

(** ** Every subfunction is denoted by a reachable reference *)

Theorem sub_is_reachable : forall L p, L <= nlevels s -> bchoice p ->
  exists x, reachable s [r] x /\ Den s x (sub phi L p) /\ L <= rlevel s x.
Proof.
  induction L as [|L IH]; intros p HL Hp.
  - exists r. split; [apply reach_root; left; reflexivity|]. split; [|lia].
    apply (den_ext s r phi _ D). intros c Hc. unfold sub.
    apply Hphi; [exact Hc | apply bchoice_glue; assumption | reflexivity].
  - destruct (IH p ltac:(lia) Hp) as [x [Rx [Dx Lx]]].
    pose proof (fun c => sub_step _ _ Hphi L p c Hp) as Hstep.
    destruct (le_lt_eq_dec _ _ Lx) as [Hlt|Heq].
    + (* [x] lies deeper: it ignores level [L] *)
      exists x. split; [exact Rx|]. split; [|lia].
      apply (den_ext s x _ _ (den_skip s x _ L (p L) H Dx Hlt (Hp L))). exact Hstep.
    + (* [x] is a node of level [L]: take the child chosen by [p] *)
      destruct x as [t|id]; [simpl in Heq; lia|].
      destruct (proj1 Dx) as [nd En]. rewrite (rlevel_node s id nd En) in Heq.
      assert (Hi : p L < arity (s_kind s)) by (rewrite (bo_kind s B); apply Hp).
      destruct (child_exists s H id nd (p L) En Hi) as [e He].
      destruct (child_nth s H id nd _ e En He) as [_ Hle].
      exists (eref e). split; [apply (reach_child s [r] id nd e Rx En (nth_error_In _ _ He))|].
      split; [|lia].
      pose proof (den_child s id nd (p L) e _ B Dx En He) as Dc. rewrite <- Heq in Dc.
      apply (den_ext s (eref e) _ _ Dc). exact Hstep.
Qed.

(** ** ... at level [L] exactly when the subfunction depends on level [L] *)

Theorem sub_level_iff : forall L p x, L < nlevels s -> bchoice p ->
  Den s x (sub phi L p) ->
  (rlevel s x = L <-> depends_on (sub phi L p) L).
Proof.
  intros L p x HL Hp Dx.
  assert (Lx : L <= rlevel s x)
    by (apply (den_level s x _ L B Dx); [lia | apply (sub_indep _ _ Hphi); exact Hp]).
  split.
  - (* a node: its two children differ, hence so do their functions *)
    intros Heq. destruct x as [t|id]; [simpl in Heq; lia|].
    destruct (proj1 Dx) as [nd En]. rewrite (rlevel_node s id nd En) in Heq.
    destruct (bdd_children s id nd B En) as [a [b Ech]].
    assert (Ha : nth_error (nchildren nd) 0 = Some a) by (rewrite Ech; reflexivity).
    assert (Hb : nth_error (nchildren nd) 1 = Some b) by (rewrite Ech; reflexivity).
    pose proof (den_child s id nd 0 a _ B Dx En Ha) as Da.
    pose proof (den_child s id nd 1 b _ B Dx En Hb) as Db.
    rewrite Heq in Da, Db.
    (* if the two cofactors agreed everywhere the children would be the same edge *)
    intros Hsame.
    apply (reduced_kary s (bdd_kary s B) _ (wf_reduced s H id nd En)).
    intros u v Hu Hv. rewrite Ech in Hu, Hv.
    assert (Eab : a = b).
    { apply (child_edge_eq s id id nd nd a b H (proj1 (bdd_kary s B)) En En
               (nth_error_In _ _ Ha) (nth_error_In _ _ Hb)).
      apply (den_canon s _ _ _ B Da). apply (den_ext s _ _ _ Db).
      intros c Hc. symmetry. apply Hsame. exact Hc. }
    destruct Hu as [<-|[<-|[]]], Hv as [<-|[<-|[]]]; congruence.
  - intros Hdep. destruct (le_lt_eq_dec _ _ Lx) as [Hlt|Heq]; [|symmetry; exact Heq].
    exfalso. apply Hdep. intros c Hc.
    apply (den_indep s x _ H Dx); try (apply bchoice_upd; auto).
    intros l Hl. unfold cupd. destruct (Nat.eqb_spec l L); [lia | reflexivity].
Qed.

End Sub.
