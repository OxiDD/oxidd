(** * The canonical diagram of a function (DD/BuildCanon.v): ZBDD kind

    A ZBDD handle denotes a Boolean function over all levels ([semz] from
    level 0), equivalently the family of the sets of "true" levels on which
    the function is true ([famz]; DD/FamSpecProofs.v [bool_view]).  The proofs
    here work with the family reading ([ZDen], DD/ZbddOpsProofs.v) and go back
    to the Boolean reading at the end.

    - [PZ f lvl cnt c0]: the family denoted by what [build_zbdd_from] returns;
    - [build_zbdd_from_ok], [build_zbdd_ok]: the construction succeeds in every
      ZBDD table, extends it, keeps it well-formed; the result denotes [PZ];
    - [same_denz], [zbdd_iso], [zbdd_diagram_unique], [zbdd_count_unique]: two
      references of two ZBDD tables denoting the same family have isomorphic
      sub-diagrams and the same node count;
    - [zbdd_node_count_canonical]: C03's last clause for the ZBDD kind. *)

From Coq Require Import List NArith PArith Bool Arith Lia FMapPositive.
From OxiVerif Require Import DD.Table DD.TableExtra DD.TableProofs DD.Canon DD.Sem DD.Build DD.BuildProofs
  DD.Apply DD.ApplyProofs DD.CanonZbdd DD.FamSpec DD.FamSpecProofs DD.ZbddOps DD.ZbddOpsProofs
  DD.ZbddBoolProofs DD.ZbddEvalProofs DD.Iso DD.BuildCanon DD.BuildCanonProofs.
Import ListNotations.

(** ** Sets of levels as choices *)

(** the choice that takes "then" exactly at the members of [S] *)
Definition cs (S : lset) : nat -> nat := fun l => if smem l S then 0 else 1.

Lemma cs_lt2 : forall S l, cs S l < 2.
Proof. intros S l. unfold cs. destruct (smem l S); lia. Qed.

Lemma cs_in : forall S l, In l S -> cs S l = 0.
Proof. intros S l Hin. unfold cs. rewrite (proj2 (smem_spec l S) Hin). reflexivity. Qed.

Lemma cs_notin : forall S l, ~ In l S -> cs S l = 1.
Proof. intros S l Hn. unfold cs. rewrite (proj2 (smem_false l S) Hn). reflexivity. Qed.

Lemma cs_cons_other : forall x S l, l <> x -> cs (x :: S) l = cs S l.
Proof.
  intros x S l Hne. unfold cs, smem. simpl.
  destruct (Nat.eqb_spec l x); [contradiction | reflexivity].
Qed.

Lemma forall_lt_weaken : forall (S : lset) a b, Forall (fun x => x < a) S -> a <= b -> Forall (fun x => x < b) S.
Proof. intros S a b Hf Hab. apply (Forall_impl _ (fun x (Hx : x < a) => Nat.lt_le_trans _ _ _ Hx Hab) Hf). Qed.

(** the true levels of [cs S] are [S] again *)
Lemma true_levels_cs : forall cnt from S, incr_from from S -> Forall (fun x => x < from + cnt) S ->
  true_levels (cs S) from cnt = S.
Proof.
  induction cnt as [|k IH]; intros from S Hi Hf.
  - destruct S as [|x r]; [reflexivity|]. simpl in Hi. inversion Hf; subst. lia.
  - simpl true_levels. destruct S as [|x r].
    + rewrite (cs_notin [] from) by (intros []). simpl. apply IH; [exact I | constructor].
    + simpl in Hi. destruct Hi as [Hx Hr]. inversion Hf as [|? ? Hxl Hrl]; subst.
      destruct (Nat.eq_dec x from) as [->|Hne].
      * rewrite (cs_in (from :: r) from) by (left; reflexivity). simpl. f_equal.
        rewrite (true_levels_ext (cs (from :: r)) (cs r) k (S from))
          by (intros l Hl; apply cs_cons_other; lia).
        apply IH; [exact Hr|]. apply (forall_lt_weaken r _ _ Hrl). lia.
      * assert (Hi' : incr_from (S from) (x :: r)) by (simpl; split; [lia | exact Hr]).
        rewrite (cs_notin (x :: r) from) by (apply (incr_from_notin _ (S from) from Hi'); lia).
        simpl. apply IH; [exact Hi'|]. constructor; [lia|]. apply (forall_lt_weaken r _ _ Hrl). lia.
Qed.

Lemma cs_true_levels : forall c cnt from l, bchoice c -> from <= l < from + cnt ->
  cs (true_levels c from cnt) l = c l.
Proof.
  intros c cnt from l Hc Hl. pose proof (Hc l) as H2.
  destruct (c l) as [|[|j]] eqn:E; [| |lia].
  - apply cs_in. apply true_levels_in; assumption.
  - apply cs_notin. intros Hin. apply true_levels_range in Hin. lia.
Qed.

Lemma true_levels_lt : forall c from cnt, Forall (fun x => x < from + cnt) (true_levels c from cnt).
Proof. intros c from cnt. apply Forall_forall. intros x Hx. apply true_levels_range in Hx. lia. Qed.

(** ** The family the construction denotes *)

Definition PZ (f : cfun) (lvl cnt : nat) (c0 : nat -> nat) : fpred :=
  fun S => incr_from lvl S /\ Forall (fun x => x < lvl + cnt) S /\ f (cmerge lvl cnt c0 (cs S)) = true.

Lemma PZ_zero : forall f lvl c0 S, PZ f lvl 0 c0 S <-> (S = [] /\ f c0 = true).
Proof.
  intros f lvl c0 S. unfold PZ. simpl cmerge. split.
  - intros [Hi [Hf Hv]]. split; [|exact Hv].
    destruct S as [|x r]; [reflexivity|]. simpl in Hi. inversion Hf; subst. lia.
  - intros [-> Hv]. split; [exact I|]. split; [constructor | exact Hv].
Qed.

Lemma PZ_step : forall f lvl k c0,
  peq (node_pred lvl (PZ f (S lvl) k (cset c0 lvl 0)) (PZ f (S lvl) k (cset c0 lvl 1)))
      (PZ f lvl (S k) c0).
Proof.
  intros f lvl k c0 S. unfold node_pred, PZ. simpl cmerge. split.
  - intros [[T [-> [Hi [Hf Hv]]]]|[Hi [Hf Hv]]].
    + split; [simpl; split; [lia | exact Hi]|]. split.
      * constructor; [lia|]. apply (forall_lt_weaken T _ _ Hf). lia.
      * rewrite (cs_in (lvl :: T) lvl) by (left; reflexivity).
        rewrite (cmerge_ext k (S lvl) _ (cs (lvl :: T)) (cs T)); [exact Hv|].
        intros l Hl. apply cs_cons_other. lia.
    + split; [apply (incr_from_weaken S (Datatypes.S lvl)); [lia | exact Hi]|]. split.
      * apply (forall_lt_weaken S _ _ Hf). lia.
      * rewrite (cs_notin S lvl) by (apply (incr_from_notin S (Datatypes.S lvl) lvl Hi); lia). exact Hv.
  - intros [Hi [Hf Hv]]. destruct S as [|x r].
    + right. split; [exact I|]. split; [constructor|].
      rewrite (cs_notin [] lvl) in Hv by (intros []). exact Hv.
    + simpl in Hi. destruct Hi as [Hx Hr]. inversion Hf as [|? ? Hxl Hrl]; subst.
      destruct (Nat.eq_dec x lvl) as [->|Hne].
      * left. exists r. split; [reflexivity|]. split; [exact Hr|]. split.
        -- apply (forall_lt_weaken r _ _ Hrl). lia.
        -- rewrite (cs_in (lvl :: r) lvl) in Hv by (left; reflexivity).
           rewrite (cmerge_ext k (Datatypes.S lvl) _ (cs (lvl :: r)) (cs r)) in Hv; [exact Hv|].
           intros l Hl. apply cs_cons_other. lia.
      * right. assert (Hi' : incr_from (Datatypes.S lvl) (x :: r)) by (simpl; split; [lia | exact Hr]).
        split; [exact Hi'|]. split.
        -- constructor; [lia|]. apply (forall_lt_weaken r _ _ Hrl). lia.
        -- rewrite (cs_notin (x :: r) lvl) in Hv
             by (apply (incr_from_notin _ (Datatypes.S lvl) lvl Hi'); lia).
           exact Hv.
Qed.

(** ** The construction inside a given ZBDD table *)

Lemma build_zbdd_from_S : forall s lvl k f c0,
  build_zbdd_from s lvl (S k) f c0 =
  match build_zbdd_from s (S lvl) k f (cset c0 lvl 0) with
  | None => None
  | Some (s1, hi) =>
    match build_zbdd_from s1 (S lvl) k f (cset c0 lvl 1) with
    | None => None
    | Some (s2, lo) => Some (zmk_node s2 lvl hi lo)
    end
  end.
Proof. reflexivity. Qed.

Theorem build_zbdd_from_ok : forall cnt s lvl f c0, ZbddOK s -> lvl + cnt = nlevels s ->
  exists s' r, build_zbdd_from s lvl cnt f c0 = Some (s', r) /\ ZbddOK s' /\ extends s s' /\
    ZDen s' r (PZ f lvl cnt c0).
Proof.
  induction cnt as [|k IH]; intros s lvl f c0 B Hn.
  - simpl. destruct (zterm_of_total s (f c0) B) as [t Et]. rewrite Et. exists s, (RT t).
    split; [reflexivity|]. split; [exact B|]. split; [apply extends_refl|].
    pose proof (term_of_spec s (f c0) t (zo_wf s B) Et) as Ev.
    destruct (f c0) eqn:Ef; simpl in Ev.
    + apply (zden_ext s (RT t) pbase); [apply (zden_base s t B Ev)|].
      intros S. rewrite PZ_zero, Ef. unfold pbase. tauto.
    + apply (zden_ext s (RT t) pempty); [apply (zden_empty s t B Ev)|].
      intros S. rewrite PZ_zero, Ef. unfold pempty. split; [tauto | intros [_ X]; discriminate].
  - rewrite build_zbdd_from_S.
    destruct (IH s (S lvl) f (cset c0 lvl 0) B ltac:(lia)) as [s1 [hi [E1 [B1 [X1 D0]]]]].
    rewrite E1.
    assert (Hn1 : S lvl + k = nlevels s1) by (rewrite (ext_nlevels _ _ X1); lia).
    destruct (IH s1 (S lvl) f (cset c0 lvl 1) B1 Hn1) as [s2 [lo [E2 [B2 [X2 D1]]]]].
    rewrite E2.
    destruct (zmk_node s2 lvl hi lo) as [s3 r] eqn:Em.
    pose proof (zden_extends s1 s2 hi _ B1 X2 D0) as D0'.
    assert (Hn2 : nlevels s2 = nlevels s) by (rewrite (ext_nlevels _ _ X2); apply (ext_nlevels _ _ X1)).
    assert (Lh : lvl < rlevel s2 hi).
    { apply (zden_level s2 hi _ (S lvl) B2 D0'); [lia|]. intros S [Hi _]. exact Hi. }
    assert (Ll : lvl < rlevel s2 lo).
    { apply (zden_level s2 lo _ (S lvl) B2 D1); [lia|]. intros S [Hi _]. exact Hi. }
    destruct (zmk_node_ok s2 lvl hi lo _ _ s3 r B2 ltac:(lia) D0' D1 Lh Ll Em) as [B3 [X3 [D3 _]]].
    exists s3, r. split; [reflexivity|]. split; [exact B3|].
    split; [exact (extends_trans _ _ _ X1 (extends_trans _ _ _ X2 X3))|].
    apply (zden_ext s3 r _ _ D3). apply PZ_step.
Qed.

Lemma base_zbdd_ok : forall v2l l2v, order_ok v2l l2v -> ZbddOK (base_snap KZbdd bool_terms v2l l2v).
Proof.
  intros v2l l2v Ho. apply zbdd_ok_b_spec. unfold zbdd_ok_b, wf_b. simpl.
  rewrite (proj2 (perm_inverse_b_spec v2l l2v) Ho). reflexivity.
Qed.

Theorem build_zbdd_ok : forall v2l l2v f, order_ok v2l l2v ->
  exists s e, build_zbdd v2l l2v f = Some (s, e) /\ ZbddOK s /\
    s_v2l s = v2l /\ s_l2v s = l2v /\ s_handles s = [] /\ etag e = false /\
    ZDen s (eref e) (PZ f 0 (length l2v) (fun _ => 0)).
Proof.
  intros v2l l2v f Ho. unfold build_zbdd.
  destruct (build_zbdd_from_ok (length l2v) (base_snap KZbdd bool_terms v2l l2v) 0 f (fun _ => 0)
              (base_zbdd_ok v2l l2v Ho) eq_refl) as [s [r [E0 [B [X D]]]]].
  rewrite E0. exists s, (E r). split; [reflexivity|]. split; [exact B|].
  split; [apply (ext_v2l _ _ X)|]. split; [apply (ext_l2v _ _ X)|].
  split; [apply (ext_handles _ _ X)|]. split; [reflexivity | exact D].
Qed.

(** the Boolean reading of the result: its view ([semz] from level 0, what
    [sem_edge] evaluates) is [f] *)
Theorem build_zbdd_view : forall v2l l2v f, order_ok v2l l2v ->
  exists s e, build_zbdd v2l l2v f = Some (s, e) /\ ZbddOK s /\
    forall c, bchoice c ->
      semz s (S (nlevels s)) 0 (eref e) c = Some (f (ctrunc (length l2v) c)).
Proof.
  intros v2l l2v f Ho.
  destruct (build_zbdd_ok v2l l2v f Ho) as [s [e [E0 [B [_ [El [_ [_ D]]]]]]]].
  exists s, e. split; [exact E0|]. split; [exact B|]. intros c Hc.
  assert (Hn : nlevels s = length l2v) by (unfold nlevels; rewrite El; reflexivity).
  assert (Hco : choice_ok s c) by (intros l; rewrite (zo_kind s B); apply Hc).
  destruct (zden_view s (eref e) _ c B D Hco) as [b [Ev Hb]]. unfold zview_of in Ev. rewrite Ev. f_equal.
  rewrite Hn in Hb. unfold PZ in Hb.
  assert (Hf : f (ctrunc (length l2v) c) = f (cmerge 0 (length l2v) (fun _ => 0) (cs (true_levels c 0 (length l2v))))).
  { unfold ctrunc. f_equal. apply cmerge_ext_range. intros l Hl.
    symmetry. apply cs_true_levels; [exact Hc | exact Hl]. }
  rewrite Hf. destruct (f _) eqn:Efv.
  - apply Hb. split; [apply true_levels_incr|]. split; [apply true_levels_lt | reflexivity].
  - destruct b; [|reflexivity]. destruct (proj1 Hb eq_refl) as [_ [_ X]]. discriminate.
Qed.

(** ** Two ZBDD tables *)

Section TwoTablesZ.
Variables s1 s2 : snap.
Hypothesis B1 : ZbddOK s1.
Hypothesis B2 : ZbddOK s2.
Hypothesis Hlev : nlevels s1 = nlevels s2.

(** the two references denote the same family of sets of levels *)
Definition same_denz (r1 r2 : ref) : Prop :=
  exists P, ZDen s1 r1 P /\ ZDen s2 r2 P.

Lemma same_denz_level : forall r1 r2, same_denz r1 r2 -> rlevel s1 r1 = rlevel s2 r2.
Proof.
  intros r1 r2 [P [D1 D2]].
  pose proof (rlevel_le s1 (zo_wf s1 B1) r1) as L1.
  pose proof (rlevel_le s2 (zo_wf s2 B2) r2) as L2.
  assert (A : rlevel s1 r1 <= rlevel s2 r2).
  { apply (zden_level s2 r2 P _ B2 D2); [lia|]. intros S HS. apply (zden_support s1 r1 P S B1 D1 HS). }
  assert (A' : rlevel s2 r2 <= rlevel s1 r1).
  { apply (zden_level s1 r1 P _ B1 D1); [lia|]. intros S HS. apply (zden_support s2 r2 P S B2 D2 HS). }
  lia.
Qed.

Lemma same_denz_children : forall a b n1 n2, same_denz (RN a) (RN b) ->
  find_node s1 a = Some n1 -> find_node s2 b = Some n2 ->
  nlevel n1 = nlevel n2 /\
  exists x0 x1 y0 y1, nchildren n1 = [x0; x1] /\ nchildren n2 = [y0; y1] /\
    same_denz (eref x0) (eref y0) /\ same_denz (eref x1) (eref y1).
Proof.
  intros a b n1 n2 HR E1 E2. pose proof (same_denz_level _ _ HR) as Hl.
  rewrite (rlevel_node s1 a n1 E1), (rlevel_node s2 b n2 E2) in Hl.
  split; [exact Hl|]. destruct HR as [P [D1 D2]].
  destruct (zden_node_inv s1 a n1 P B1 D1 E1) as [x0 [x1 [PA [PB [Ex [DA [DB [LA [LB HP]]]]]]]]].
  destruct (zden_node_inv s2 b n2 P B2 D2 E2) as [y0 [y1 [QA [QB [Ey [DQA [DQB [LQA [LQB HQ]]]]]]]]].
  exists x0, x1, y0, y1. split; [exact Ex|]. split; [exact Ey|].
  rewrite <- Hl in HQ, LQA, LQB.
  destruct (node_pred_inj (nlevel n1) PA PB QA QB) as [HA HB].
  - intros T HT. apply (zden_below s1 _ PB _ T B1 DB LB HT).
  - intros T HT. apply (zden_below s2 _ QB _ T B2 DQB LQB HT).
  - intros S. rewrite <- (HP S). apply HQ.
  - split.
    + exists PA. split; [exact DA|]. apply (zden_ext s2 _ QA PA DQA). intros S. symmetry. apply HA.
    + exists PB. split; [exact DB|]. apply (zden_ext s2 _ QB PB DQB). intros S. symmetry. apply HB.
Qed.

Lemma same_denz_inj : forall r1 r2 r1' r2', same_denz r1 r2 -> same_denz r1' r2' -> (r1 = r1' <-> r2 = r2').
Proof.
  intros r1 r2 r1' r2' [P [D1 D2]] [Q [D1' D2']]. split; intros ->.
  - apply (zden_canon s2 _ _ P Q B2 D2 D2'). apply (zden_unique s1 r1' P Q D1 D1').
  - apply (zden_canon s1 _ _ P Q B1 D1 D1'). apply (zden_unique s2 r2' P Q D2 D2').
Qed.

Lemma same_denz_bisim : bisim s1 s2 same_denz.
Proof.
  pose proof (zo_wf s1 B1) as H1. pose proof (zo_wf s2 B2) as H2.
  constructor.
  - intros r1 r2 HR. pose proof (same_denz_level r1 r2 HR) as Hl.
    destruct HR as [P [D1 D2]].
    apply (same_level_shape s1 s2 r1 r2 H1 H2 (zden_ok _ _ _ D1) (zden_ok _ _ _ D2) Hlev Hl).
  - intros a b HR. pose proof HR as [P [D1 D2]].
    destruct (zden_ok _ _ _ D1) as [n1 E1]. destruct (zden_ok _ _ _ D2) as [n2 E2]. rewrite E1, E2.
    destruct (same_denz_children a b n1 n2 HR E1 E2) as [_ [x0 [x1 [y0 [y1 [Ex [Ey [R0 R1]]]]]]]].
    rewrite Ex, Ey. simpl. constructor; [exact R0|]. constructor; [exact R1 | constructor].
  - intros a b a' b' R1 R2. destruct (same_denz_inj _ _ _ _ R1 R2) as [A A'].
    split; intros E; [injection (A (f_equal RN E)) | injection (A' (f_equal RN E))]; auto.
  - intros t u t' u' R1 R2. destruct (same_denz_inj _ _ _ _ R1 R2) as [A A'].
    split; intros E; [injection (A (f_equal RT E)) | injection (A' (f_equal RT E))]; auto.
Qed.

Theorem zbdd_iso : iso s1 s2 same_denz.
Proof.
  constructor.
  - exact same_denz_bisim.
  - exact same_denz_level.
  - intros t u [P [D1 D2]] _.
    destruct (zterm_cases s1 t B1 (zden_ok _ _ _ D1)) as [V1|V1];
      destruct (zterm_cases s2 u B2 (zden_ok _ _ _ D2)) as [V2|V2]; try congruence; exfalso.
    + pose proof (zden_unique s1 _ P pempty D1 (zden_empty s1 t B1 V1)) as Q1.
      pose proof (zden_unique s2 _ P pbase D2 (zden_base s2 u B2 V2)) as Q2.
      apply (proj1 (Q1 [])). apply (proj2 (Q2 [])). reflexivity.
    + pose proof (zden_unique s1 _ P pbase D1 (zden_base s1 t B1 V1)) as Q1.
      pose proof (zden_unique s2 _ P pempty D2 (zden_empty s2 u B2 V2)) as Q2.
      apply (proj1 (Q2 [])). apply (proj2 (Q1 [])). reflexivity.
  - intros a b n1 n2 HR E1 E2.
    destruct (same_denz_children a b n1 n2 HR E1 E2) as [_ [x0 [x1 [y0 [y1 [Ex [Ey _]]]]]]].
    assert (K1 : s_kind s1 <> KBcdd) by (rewrite (zo_kind s1 B1); discriminate).
    assert (K2 : s_kind s2 <> KBcdd) by (rewrite (zo_kind s2 B2); discriminate).
    pose proof (wf_tags s1 (zo_wf s1 B1) K1 a n1) as T1.
    pose proof (wf_tags s2 (zo_wf s2 B2) K2 b n2) as T2.
    rewrite Ex in *. rewrite Ey in *. simpl.
    rewrite (T1 x0 E1), (T1 x1 E1), (T2 y0 E2), (T2 y1 E2) by (simpl; auto). reflexivity.
Qed.

(** UNIQUENESS: two references of two ZBDD tables over the same number of
    levels that denote the same family have isomorphic sub-diagrams *)
Theorem zbdd_diagram_unique : forall r1 r2 P, ZDen s1 r1 P -> ZDen s2 r2 P ->
  exists R, iso s1 s2 R /\ R r1 r2.
Proof. intros r1 r2 P D1 D2. exists same_denz. split; [exact zbdd_iso | exists P; auto]. Qed.

Theorem zbdd_count_unique : forall r1 r2 P, ZDen s1 r1 P -> ZDen s2 r2 P ->
  count_reach s1 (E r1) = count_reach s2 (E r2).
Proof.
  intros r1 r2 P D1 D2.
  apply (count_reach_bisim s1 s2 same_denz same_denz_bisim
           (wf_arity_ok s1 (zo_wf s1 B1)) (wf_arity_ok s2 (zo_wf s2 B2)) (E r1) (E r2)).
  exists P. auto.
Qed.

End TwoTablesZ.

(** ** The node count of a reference is the size of the diagram built from its function *)

Theorem zbdd_count_is_build : forall s r f v2l l2v, ZbddOK s -> order_ok v2l l2v ->
  length l2v = nlevels s -> ZDen s r (PZ f 0 (length l2v) (fun _ => 0)) ->
  exists s' e', build_zbdd v2l l2v f = Some (s', e') /\ ZbddOK s' /\
    count_reach s (E r) = count_reach s' e' /\
    exists R, iso s s' R /\ R r (eref e').
Proof.
  intros s r f v2l l2v B Ho Hlen D.
  destruct (build_zbdd_ok v2l l2v f Ho) as [s' [e' [E0 [B' [_ [El [_ [Et D']]]]]]]].
  exists s', e'. split; [exact E0|]. split; [exact B'|].
  assert (Hl : nlevels s = nlevels s') by (unfold nlevels at 2; rewrite El; symmetry; exact Hlen).
  split.
  - replace e' with (E (eref e')) by (destruct e' as [x t]; simpl in *; subst; reflexivity).
    apply (zbdd_count_unique s s' B B' Hl r (eref e') _ D D').
  - apply (zbdd_diagram_unique s s' B B' Hl r (eref e') _ D D').
Qed.

Lemma sem_edge_zbdd_code : forall s e c, s_kind s = KZbdd ->
  sem_edge s e c = option_map (fun b : bool => if b then 1%N else 0%N) (semz s (S (nlevels s)) 0 (eref e) c).
Proof. intros s e c Hk. unfold sem_edge. rewrite Hk. reflexivity. Qed.

(** the family of a handle is the family of its Boolean function [cfun_of] *)
Lemma cfun_of_den_zbdd : forall s e, ZbddOK s -> ref_ok s (eref e) ->
  ZDen s (eref e) (PZ (cfun_of s e) 0 (nlevels s) (fun _ => 0)).
Proof.
  intros s e B O. pose proof (zo_wf s B) as H.
  destruct (zden_exists s (eref e) B O) as [P D].
  apply (zden_ext s (eref e) P _ D). intros S.
  assert (Hco : choice_ok s (cs S)) by (intros l; rewrite (zo_kind s B); apply cs_lt2).
  destruct (zden_view s (eref e) P (cs S) B D Hco) as [b [Ev Hb]]. unfold zview_of in Ev.
  assert (Hval : cfun_of s e (cmerge 0 (nlevels s) (fun _ => 0) (cs S)) = b).
  { unfold cfun_of. rewrite (sem_edge_zbdd_code s e _ (zo_kind s B)).
    fold (ctrunc (nlevels s) (cs S)).
    rewrite (semz_ext_lt s H _ 0 (eref e) (ctrunc (nlevels s) (cs S)) (cs S)).
    - rewrite Ev. destruct b; reflexivity.
    - intros l Hl. apply ctrunc_lt. apply Hl. }
  unfold PZ. rewrite Hval. split.
  - intros HP. destruct (zden_support s (eref e) P S B D HP) as [Hi Hf].
    split; [apply (incr_from_weaken S (rlevel s (eref e))); [lia | exact Hi]|].
    split; [exact Hf|]. apply Hb. rewrite (true_levels_cs (nlevels s) 0 S); [exact HP| |exact Hf].
    apply (incr_from_weaken S (rlevel s (eref e))); [lia | exact Hi].
  - intros [Hi [Hf Hv]]. rewrite <- (true_levels_cs (nlevels s) 0 S Hi Hf). apply Hb. exact Hv.
Qed.

(** C03, last clause, ZBDD kind *)
Theorem zbdd_node_count_canonical : forall s e, ZbddOK s -> ref_ok s (eref e) ->
  canonical_count s e = Some (count_reach s e).
Proof.
  intros s e B O. unfold canonical_count, build_kind. rewrite (zo_kind s B).
  destruct (zbdd_count_is_build s (eref e) (cfun_of s e) (s_v2l s) (s_l2v s) B
              (wf_order_ok s (zo_wf s B)) eq_refl (cfun_of_den_zbdd s e B O))
    as [s' [e' [E0 [_ [Hc _]]]]].
  rewrite E0. f_equal. symmetry. exact Hc.
Qed.
