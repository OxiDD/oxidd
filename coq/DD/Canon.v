(** * Canonicity of k-ary reduced ordered diagrams (BDD, MTBDD, TDD)

    On a well-formed snapshot two existing references with the same
    interpretation under every admissible choice function are the same
    reference.  Strong induction on [max (n - rlevel r1) (n - rlevel r2)]
    (DESIGN.md appendix B). *)

From Coq Require Import List NArith PArith Bool Arith Lia FMapPositive.
From OxiVerif Require Import DD.Table DD.TableProofs.
Import ListNotations.

(** the kinds interpreted by [semk] *)
Definition kary (k : kind) : Prop := k <> KBcdd /\ k <> KZbdd.

Lemma kary_cases : forall k, kary k <-> k = KBdd \/ k = KMtbdd \/ k = KTdd.
Proof.
  intros k. unfold kary. destruct k; split; intros Hk;
    try (destruct Hk as [A B]; congruence);
    try (destruct Hk as [A|[A|A]]; discriminate);
    try (split; discriminate); auto.
Qed.

(** two existing references of the same level are the same reference as soon as
    they are the same terminal, or nodes whose children agree position by
    position (one node per level and child list; a terminal is no node) *)
Lemma same_level_refs : forall s, WF s -> forall r1 r2, ref_ok s r1 -> ref_ok s r2 ->
  rlevel s r1 = rlevel s r2 ->
  (forall t1 t2, r1 = RT t1 -> r2 = RT t2 -> t1 = t2) ->
  (forall id1 id2 n1 n2, r1 = RN id1 -> r2 = RN id2 ->
     find_node s id1 = Some n1 -> find_node s id2 = Some n2 -> nlevel n1 = nlevel n2 ->
     forall i a b, nth_error (nchildren n1) i = Some a -> nth_error (nchildren n2) i = Some b -> a = b) ->
  r1 = r2.
Proof.
  intros s H [t1|id1] [t2|id2] O1 O2 Hlev HT HN.
  - f_equal. apply (HT t1 t2); reflexivity.
  - destruct O2 as [nd E]. rewrite (rlevel_node s id2 nd E) in Hlev.
    pose proof (wf_level s H id2 nd E). simpl in Hlev. lia.
  - destruct O1 as [nd E]. rewrite (rlevel_node s id1 nd E) in Hlev.
    pose proof (wf_level s H id1 nd E). simpl in Hlev. lia.
  - destruct O1 as [n1 E1]. destruct O2 as [n2 E2].
    rewrite (rlevel_node s id1 n1 E1), (rlevel_node s id2 n2 E2) in Hlev.
    f_equal. apply (wf_unique s H id1 id2 n1 n2 E1 E2 Hlev). apply list_eq_nth.
    + rewrite (wf_arity s H id1 n1 E1), (wf_arity s H id2 n2 E2). reflexivity.
    + apply (HN id1 id2 n1 n2 eq_refl eq_refl E1 E2 Hlev).
Qed.

Section Canon.
Variable s : snap.
Hypothesis H : WF s.
Hypothesis Hkind : kary (s_kind s).

Definition semn (r : ref) (c : nat -> nat) : option N := semk s (S (nlevels s)) r c.

Lemma reduced_kary : forall ch, reduced s ch -> ~ all_same ch.
Proof.
  intros ch. unfold reduced. destruct Hkind as [A B].
  destruct (s_kind s); try congruence; auto.
Qed.

Lemma not_bcdd : s_kind s <> KBcdd.
Proof. apply Hkind. Qed.

(** the interpretation looks only at levels from the reference's level on *)
Lemma semk_ext : forall f r c c',
  (forall l, rlevel s r <= l -> c l = c' l) -> semk s f r c = semk s f r c'.
Proof.
  induction f as [|f IH]; intros r c c' Hcc.
  - destruct r as [t|id]; [rewrite !semk_T; reflexivity | reflexivity].
  - destruct r as [t|id]; [rewrite !semk_T; reflexivity|].
    rewrite !semk_S. destruct (find_node s id) as [nd|] eqn:E; [|reflexivity].
    rewrite (rlevel_node s id nd E) in Hcc.
    rewrite <- (Hcc (nlevel nd) (le_n _)).
    destruct (nth_error (nchildren nd) (c (nlevel nd))) as [e|] eqn:He; [|reflexivity].
    destruct (child_nth s H id nd _ e E He) as [_ Hle].
    apply IH. intros l Hl. apply Hcc. lia.
Qed.

Lemma semn_node : forall id nd e c,
  find_node s id = Some nd -> nth_error (nchildren nd) (c (nlevel nd)) = Some e ->
  semn (RN id) c = semn (eref e) c.
Proof.
  intros id nd e c E He. unfold semn. rewrite semk_S, E, He.
  destruct (child_nth s H id nd _ e E He) as [Hoe Hle].
  pose proof (wf_level s H id nd E). pose proof (rlevel_le s H (eref e)).
  apply semk_fuel; auto; lia.
Qed.

(** child [i] of a node is the node's cofactor for "level := i" *)
Lemma child_sem : forall id nd i e c,
  find_node s id = Some nd -> nth_error (nchildren nd) i = Some e ->
  semn (eref e) c = semn (RN id) (upd c (nlevel nd) i).
Proof.
  intros id nd i e c E He.
  rewrite (semn_node id nd e (upd c (nlevel nd) i) E) by (rewrite upd_same; exact He).
  unfold semn. apply semk_ext. intros l Hl.
  destruct (child_nth s H id nd _ e E He) as [_ Hle].
  rewrite upd_other by lia. reflexivity.
Qed.

Lemma child_index : forall id nd i e,
  find_node s id = Some nd -> nth_error (nchildren nd) i = Some e -> i < arity (s_kind s).
Proof.
  intros id nd i e E He. rewrite <- (wf_arity s H id nd E).
  apply nth_error_Some. congruence.
Qed.

Definition canon_upto (k : nat) : Prop :=
  forall r1 r2, ref_ok s r1 -> ref_ok s r2 ->
    Nat.max (nlevels s - rlevel s r1) (nlevels s - rlevel s r2) <= k ->
    (forall c, choice_ok s c -> semn r1 c = semn r2 c) -> r1 = r2.

(** a reference lying strictly above another one with the same meaning would be
    a redundant node: all its children mean the same as that reference *)
Lemma node_above : forall k, (forall k', k' < k -> canon_upto k') ->
  forall r1 r2, ref_ok s r1 -> ref_ok s r2 ->
    rlevel s r1 < rlevel s r2 -> nlevels s - rlevel s r1 <= k ->
    (forall c, choice_ok s c -> semn r1 c = semn r2 c) -> False.
Proof.
  intros k IH r1 r2 O1 O2 Hlt Hk Heq. pose proof (rlevel_le s H r2) as Hle.
  destruct r1 as [t|id]; [simpl in Hlt; lia|]. destruct O1 as [nd E].
  rewrite (rlevel_node s id nd E) in Hlt, Hk.
  assert (Hch : forall i e, nth_error (nchildren nd) i = Some e ->
            forall c, choice_ok s c -> semn (eref e) c = semn r2 c).
  { intros i e He c Hc. rewrite (child_sem id nd i e c E He).
    rewrite Heq by (apply choice_ok_upd; [exact Hc | exact (child_index id nd i e E He)]).
    unfold semn. apply semk_ext. intros l Hl. rewrite upd_other by lia. reflexivity. }
  apply (reduced_kary _ (wf_reduced s H id nd E)).
  intros a b Ha Hb.
  destruct (In_nth_error _ _ Ha) as [i Hi]. destruct (In_nth_error _ _ Hb) as [j Hj].
  destruct (child_nth s H id nd i a E Hi) as [Oa La].
  destruct (child_nth s H id nd j b E Hj) as [Ob Lb].
  apply (child_edge_eq s id id nd nd a b H not_bcdd E E Ha Hb).
  apply (IH (Nat.max (nlevels s - rlevel s (eref a)) (nlevels s - rlevel s (eref b)))); auto; [lia|].
  intros c Hc. rewrite (Hch i a Hi c Hc), (Hch j b Hj c Hc). reflexivity.
Qed.

Lemma canon_all : forall k, canon_upto k.
Proof.
  induction k as [k IH] using lt_wf_ind. intros r1 r2 O1 O2 Hk Heq.
  assert (Hlev : rlevel s r1 = rlevel s r2).
  { destruct (lt_eq_lt_dec (rlevel s r1) (rlevel s r2)) as [[Hlt|Hlev]|Hgt]; [exfalso | exact Hlev | exfalso].
    - apply (node_above k IH r1 r2 O1 O2 Hlt); [lia | exact Heq].
    - apply (node_above k IH r2 r1 O2 O1 Hgt); [lia|]. intros c Hc. symmetry. apply Heq. exact Hc. }
  apply (same_level_refs s H r1 r2 O1 O2 Hlev).
  - (* two terminals: equal value codes *)
    intros t1 t2 -> ->. specialize (Heq (fun _ => 0) (choice_ok_const s 0 ltac:(lia))).
    unfold semn in Heq. rewrite !semk_T in Heq.
    destruct O1 as [v1 E1]. destruct O2 as [v2 E2].
    rewrite E1 in Heq. apply (term_val_inj s t1 t2 v1 H E1). congruence.
  - intros id1 id2 n1 n2 -> -> E1 E2 Hl i a b Ha Hb.
    pose proof (wf_level s H id1 n1 E1) as Hl1. pose proof (wf_level s H id2 n2 E2) as Hl2.
    rewrite (rlevel_node s id1 n1 E1), (rlevel_node s id2 n2 E2) in Hk.
    destruct (child_nth s H id1 n1 i a E1 Ha) as [Oa La].
    destruct (child_nth s H id2 n2 i b E2 Hb) as [Ob Lb].
    apply (child_edge_eq s id1 id2 n1 n2 a b H not_bcdd E1 E2
             (nth_error_In _ _ Ha) (nth_error_In _ _ Hb)).
    apply (IH (Nat.max (nlevels s - rlevel s (eref a)) (nlevels s - rlevel s (eref b)))); auto; [lia|].
    intros c Hc.
    rewrite (child_sem id1 n1 i a c E1 Ha), (child_sem id2 n2 i b c E2 Hb), Hl.
    apply Heq. apply choice_ok_upd; [exact Hc | exact (child_index id1 n1 i a E1 Ha)].
Qed.

(** Canonicity, k-ary kinds: equal references iff equal interpretations. *)
Theorem canon_kary : forall r1 r2, ref_ok s r1 -> ref_ok s r2 ->
  (r1 = r2 <->
   forall c, choice_ok s c -> semk s (S (nlevels s)) r1 c = semk s (S (nlevels s)) r2 c).
Proof.
  intros r1 r2 O1 O2. split.
  - intros ->. reflexivity.
  - intros Heq. apply (canon_all _ r1 r2 O1 O2 (le_n _)). exact Heq.
Qed.

End Canon.

Lemma sem_edge_kary : forall s e c, kary (s_kind s) ->
  sem_edge s e c = semk s (S (nlevels s)) (eref e) c.
Proof. intros s e c [A B]. unfold sem_edge. destruct (s_kind s); congruence. Qed.

(** C01 for the k-ary kinds, in terms of handles and [sem_edge] *)
Theorem canon_kary_handles : forall s, WF s -> kary (s_kind s) ->
  forall h1 h2, In h1 (s_handles s) -> In h2 (s_handles s) ->
  (snd h1 = snd h2 <->
   forall c, choice_ok s c -> sem_edge s (snd h1) c = sem_edge s (snd h2) c).
Proof.
  intros s H Hk h1 h2 H1 H2.
  destruct (wf_handles s H h1 H1) as [O1 T1]. destruct (wf_handles s H h2 H2) as [O2 T2].
  split.
  - intros ->. reflexivity.
  - intros Heq. apply edge_ext.
    + apply (canon_kary s H Hk _ _ O1 O2). intros c Hc. rewrite <- !sem_edge_kary by exact Hk.
      apply Heq. exact Hc.
    + rewrite (T1 (proj1 Hk)), (T2 (proj1 Hk)). reflexivity.
Qed.
