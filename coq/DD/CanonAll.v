(** * C01 in one statement for all five kinds *)

From Coq Require Import List NArith.
From OxiVerif Require Import DD.Table DD.TableExtra DD.TableProofs
  DD.Canon DD.CanonBcdd DD.CanonZbdd.

(** On a well-formed snapshot (of any kind) two existing edges (tags allowed
    only for BCDDs) are the same edge iff they have the same meaning under every
    admissible choice function (binary choices; ternary for TDDs). *)
Theorem canon_edges : forall s, WFfull s ->
  forall e1 e2, ref_ok s (eref e1) -> ref_ok s (eref e2) ->
  (s_kind s <> KBcdd -> etag e1 = false /\ etag e2 = false) ->
  (e1 = e2 <->
   forall c, choice_ok s c -> sem_edge s e1 c = sem_edge s e2 c).
Proof.
  intros s [H Ht] e1 e2 O1 O2 Htag. split; [intros ->; reflexivity|]. intros Heq.
  assert (Hk : kary (s_kind s) \/ s_kind s = KBcdd \/ s_kind s = KZbdd)
    by (unfold kary; destruct (s_kind s); auto; left; split; discriminate).
  destruct Hk as [Hk|[Hk|Hk]].
  - destruct (Htag (proj1 Hk)) as [T1 T2]. apply edge_ext; [|congruence].
    apply (canon_kary s H Hk _ _ O1 O2). intros c Hc. rewrite <- !sem_edge_kary by exact Hk.
    apply Heq. exact Hc.
  - apply (canon_bcdd s H Hk Ht _ _ O1 O2). intros c Hc. apply omap_code_inj.
    specialize (Heq c Hc). unfold sem_edge in Heq. rewrite Hk in Heq. exact Heq.
  - destruct (Htag ltac:(rewrite Hk; discriminate)) as [T1 T2]. apply edge_ext; [|congruence].
    apply (canon_zbdd s H Hk Ht _ _ O1 O2). intros c Hc. apply omap_code_inj.
    specialize (Heq c Hc). unfold sem_edge in Heq. rewrite Hk in Heq. exact Heq.
Qed.

Theorem canon_handles : forall s, WFfull s ->
  forall h1 h2, In h1 (s_handles s) -> In h2 (s_handles s) ->
  (snd h1 = snd h2 <->
   forall c, choice_ok s c -> sem_edge s (snd h1) c = sem_edge s (snd h2) c).
Proof.
  intros s W h1 h2 H1 H2.
  destruct (wf_handles s (proj1 W) h1 H1) as [O1 T1]. destruct (wf_handles s (proj1 W) h2 H2) as [O2 T2].
  apply (canon_edges s W _ _ O1 O2). intros Hk. split; [apply T1 | apply T2]; exact Hk.
Qed.
