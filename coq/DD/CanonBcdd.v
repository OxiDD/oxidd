(** * Canonicity of complement-edge BDDs

    On a well-formed BCDD snapshot with (at most) one terminal, two edges
    (reference + complement tag) with the same [semc] interpretation under every
    binary choice are the same edge.  The tags agree because the all-"then"
    path never crosses a tagged edge (then-edges are untagged); the references
    agree by the same induction as in DD/Canon.v. *)

From Coq Require Import List NArith PArith Bool Arith Lia FMapPositive.
From OxiVerif Require Import DD.Table DD.TableExtra DD.TableProofs DD.Canon.
Import ListNotations.

Lemma omap_xorb_inj : forall t (x y : option bool),
  option_map (xorb t) x = option_map (xorb t) y -> x = y.
Proof.
  intros t [a|] [b|] E; simpl in E; try discriminate; [|reflexivity].
  inversion E as [E']. destruct t, a, b; simpl in E'; congruence.
Qed.

Section CanonBcdd.
Variable s : snap.
Hypothesis H : WF s.
Hypothesis Hkind : s_kind s = KBcdd.
Hypothesis Hterm : terms_kind s.

Definition semcn (e : edge) (c : nat -> nat) : option bool := semc s (S (nlevels s)) e c.

Lemma reduced_bcdd : forall ch, reduced s ch ->
  ~ all_same ch /\ exists t, hd_error ch = Some t /\ etag t = false.
Proof. intros ch. unfold reduced. rewrite Hkind. auto. Qed.

Lemma arity_bcdd : arity (s_kind s) = 2.
Proof. rewrite Hkind. reflexivity. Qed.

Lemma semc_ext : forall f e c c',
  (forall l, rlevel s (eref e) <= l -> c l = c' l) -> semc s f e c = semc s f e c'.
Proof.
  induction f as [|f IH]; intros e c c' Hcc.
  - destruct (eref e) as [t|id] eqn:Er.
    + rewrite !(semc_T _ _ _ _ t Er). reflexivity.
    + rewrite !(semc_O _ _ _ id Er). reflexivity.
  - destruct (eref e) as [t|id] eqn:Er.
    + rewrite !(semc_T _ _ _ _ t Er). reflexivity.
    + rewrite !(semc_S _ _ _ _ id Er).
      destruct (find_node s id) as [nd|] eqn:E; [|reflexivity].
      rewrite (rlevel_node s id nd E) in Hcc.
      rewrite <- (Hcc (nlevel nd) (le_n _)).
      destruct (nth_error (nchildren nd) (c (nlevel nd))) as [e'|] eqn:He; [|reflexivity].
      destruct (child_nth s H id nd _ e' E He) as [_ Hle].
      rewrite (IH e' c c'); [reflexivity|]. intros l Hl. apply Hcc. lia.
Qed.

(** child [i] of the node under edge [e] is the cofactor, up to [e]'s tag *)
Lemma child_semc : forall e id nd i x c,
  eref e = RN id -> find_node s id = Some nd -> nth_error (nchildren nd) i = Some x ->
  semcn e (upd c (nlevel nd) i) = option_map (xorb (etag e)) (semcn x c).
Proof.
  intros e id nd i x c Er E He. unfold semcn.
  rewrite (semc_S _ _ _ _ id Er), E, upd_same, He.
  destruct (child_nth s H id nd i x E He) as [Ox Lx].
  pose proof (wf_level s H id nd E). pose proof (rlevel_le s H (eref x)).
  rewrite (semc_fuel s H (nlevels s) (S (nlevels s)) x) by (auto; lia).
  rewrite (semc_ext (S (nlevels s)) x (upd c (nlevel nd) i) c)
    by (intros l Hl; rewrite upd_other by lia; reflexivity).
  destruct (semc s (S (nlevels s)) x c); reflexivity.
Qed.

Lemma child_index_b : forall id nd i x,
  find_node s id = Some nd -> nth_error (nchildren nd) i = Some x -> i < 2.
Proof.
  intros id nd i x E He. rewrite <- arity_bcdd, <- (wf_arity s H id nd E).
  apply nth_error_Some. congruence.
Qed.

(** following then-edges only, the value is decided by the tag of the root edge *)
Lemma semc_all_then : forall f e, ref_ok s (eref e) ->
  nlevels s - rlevel s (eref e) < f ->
  semc s f e (fun _ => 0) = Some (negb (etag e)).
Proof.
  induction f as [|f IH]; intros e Hok Hf; [lia|].
  destruct (eref e) as [t|id] eqn:Er; [apply (semc_T _ _ _ _ t Er)|].
  destruct Hok as [nd E]. rewrite (semc_S _ _ _ _ id Er), E.
  rewrite (rlevel_node s id nd E) in Hf.
  destruct (child_exists s H id nd 0 E ltac:(rewrite arity_bcdd; lia)) as [x Hx]. rewrite Hx.
  destruct (child_nth s H id nd 0 x E Hx) as [Ox Lx].
  pose proof (rlevel_le s H (eref x)).
  rewrite (IH x Ox ltac:(lia)).
  destruct (reduced_bcdd _ (wf_reduced s H id nd E)) as [_ [t [Ht1 Ht2]]].
  assert (t = x) by (destruct (nchildren nd); simpl in *; congruence). subst t.
  rewrite Ht2. simpl. rewrite xorb_true_r. reflexivity.
Qed.

Lemma choice_ok_b : forall c, choice_ok s c <-> forall l, c l < 2.
Proof. intros c. unfold choice_ok. rewrite arity_bcdd. reflexivity. Qed.

Lemma tags_agree : forall e1 e2, ref_ok s (eref e1) -> ref_ok s (eref e2) ->
  (forall c, choice_ok s c -> semcn e1 c = semcn e2 c) -> etag e1 = etag e2.
Proof.
  intros e1 e2 O1 O2 Heq.
  specialize (Heq (fun _ => 0) (choice_ok_const s 0 ltac:(lia))). unfold semcn in Heq.
  pose proof (rlevel_le s H (eref e1)). pose proof (rlevel_le s H (eref e2)).
  rewrite (semc_all_then _ e1 O1), (semc_all_then _ e2 O2) in Heq by lia.
  inversion Heq as [E]. destruct (etag e1), (etag e2); simpl in E; congruence.
Qed.

Definition canon_upto (k : nat) : Prop :=
  forall e1 e2, ref_ok s (eref e1) -> ref_ok s (eref e2) ->
    Nat.max (nlevels s - rlevel s (eref e1)) (nlevels s - rlevel s (eref e2)) <= k ->
    (forall c, choice_ok s c -> semcn e1 c = semcn e2 c) -> e1 = e2.

(** an edge to a reference lying strictly above that of an edge with the same
    meaning would lead to a redundant node *)
Lemma node_above : forall k, (forall k', k' < k -> canon_upto k') ->
  forall e1 e2, ref_ok s (eref e1) -> ref_ok s (eref e2) ->
    rlevel s (eref e1) < rlevel s (eref e2) -> nlevels s - rlevel s (eref e1) <= k ->
    (forall c, choice_ok s c -> semcn e1 c = semcn e2 c) -> False.
Proof.
  intros k IH e1 e2. pose proof (rlevel_le s H (eref e2)) as Hle.
  destruct (eref e1) as [t|id] eqn:Er; intros O1 O2 Hlt Hk Heq; [simpl in Hlt; lia|].
  destruct O1 as [nd E]. rewrite (rlevel_node s id nd E) in Hlt, Hk.
  assert (Hch : forall i x, nth_error (nchildren nd) i = Some x ->
            forall c, choice_ok s c -> option_map (xorb (etag e1)) (semcn x c) = semcn e2 c).
  { intros i x Hx c Hc. rewrite <- (child_semc e1 id nd i x c Er E Hx).
    rewrite Heq by (apply choice_ok_upd; [exact Hc | rewrite arity_bcdd; exact (child_index_b id nd i x E Hx)]).
    unfold semcn. apply semc_ext. intros l Hl. rewrite upd_other by lia. reflexivity. }
  apply (proj1 (reduced_bcdd _ (wf_reduced s H id nd E))).
  intros a b Ha Hb.
  destruct (In_nth_error _ _ Ha) as [i Hi]. destruct (In_nth_error _ _ Hb) as [j Hj].
  destruct (child_nth s H id nd i a E Hi) as [Oa La].
  destruct (child_nth s H id nd j b E Hj) as [Ob Lb].
  apply (IH (Nat.max (nlevels s - rlevel s (eref a)) (nlevels s - rlevel s (eref b)))); auto; [lia|].
  intros c Hc. apply (omap_xorb_inj (etag e1)).
  rewrite (Hch i a Hi c Hc), (Hch j b Hj c Hc). reflexivity.
Qed.

Lemma canon_all : forall k, canon_upto k.
Proof.
  induction k as [k IH] using lt_wf_ind. intros e1 e2 O1 O2 Hk Heq.
  pose proof (tags_agree e1 e2 O1 O2 Heq) as Htag.
  apply edge_ext; [|exact Htag].
  assert (Hlev : rlevel s (eref e1) = rlevel s (eref e2)).
  { destruct (lt_eq_lt_dec (rlevel s (eref e1)) (rlevel s (eref e2))) as [[Hlt|Hlev]|Hgt];
      [exfalso | exact Hlev | exfalso].
    - apply (node_above k IH e1 e2 O1 O2 Hlt); [lia | exact Heq].
    - apply (node_above k IH e2 e1 O2 O1 Hgt); [lia|]. intros c Hc. symmetry. apply Heq. exact Hc. }
  apply (same_level_refs s H _ _ O1 O2 Hlev).
  - intros t1 t2 Er1 Er2. rewrite Er1 in O1. rewrite Er2 in O2.
    destruct O1 as [v1 E1]. destruct O2 as [v2 E2].
    apply (bcdd_one_term s t1 t2 v1 v2 Hkind Hterm E1 E2).
  - intros id1 id2 n1 n2 Er1 Er2 E1 E2 Hl i a b Ha Hb.
    pose proof (wf_level s H id1 n1 E1) as Hl1. pose proof (wf_level s H id2 n2 E2) as Hl2.
    rewrite Er1, Er2, (rlevel_node s id1 n1 E1), (rlevel_node s id2 n2 E2) in Hk.
    destruct (child_nth s H id1 n1 i a E1 Ha) as [Oa La].
    destruct (child_nth s H id2 n2 i b E2 Hb) as [Ob Lb].
    apply (IH (Nat.max (nlevels s - rlevel s (eref a)) (nlevels s - rlevel s (eref b)))); auto; [lia|].
    intros c Hc. apply (omap_xorb_inj (etag e1)).
    rewrite <- (child_semc e1 id1 n1 i a c Er1 E1 Ha).
    rewrite Htag, <- (child_semc e2 id2 n2 i b c Er2 E2 Hb), Hl.
    apply Heq. apply choice_ok_upd; [exact Hc | rewrite arity_bcdd; exact (child_index_b id1 n1 i a E1 Ha)].
Qed.

(** Canonicity, BCDD: equal edges (reference and tag) iff equal interpretations. *)
Theorem canon_bcdd : forall e1 e2, ref_ok s (eref e1) -> ref_ok s (eref e2) ->
  (e1 = e2 <->
   forall c, choice_ok s c -> semc s (S (nlevels s)) e1 c = semc s (S (nlevels s)) e2 c).
Proof.
  intros e1 e2 O1 O2. split.
  - intros ->. reflexivity.
  - intros Heq. apply (canon_all _ e1 e2 O1 O2 (le_n _)). exact Heq.
Qed.

End CanonBcdd.

Lemma omap_code_inj : forall x y : option bool,
  option_map (fun b : bool => if b then 1%N else 0%N) x =
  option_map (fun b : bool => if b then 1%N else 0%N) y -> x = y.
Proof. intros [[|]|] [[|]|] E; simpl in E; congruence. Qed.

(** C01 for BCDDs, in terms of handles and [sem_edge] *)
Theorem canon_bcdd_handles : forall s, WF s -> s_kind s = KBcdd -> terms_kind s ->
  forall h1 h2, In h1 (s_handles s) -> In h2 (s_handles s) ->
  (snd h1 = snd h2 <->
   forall c, choice_ok s c -> sem_edge s (snd h1) c = sem_edge s (snd h2) c).
Proof.
  intros s H Hk Ht h1 h2 H1 H2.
  destruct (wf_handles s H h1 H1) as [O1 _]. destruct (wf_handles s H h2 H2) as [O2 _].
  split.
  - intros ->. reflexivity.
  - intros Heq. apply (canon_bcdd s H Hk Ht _ _ O1 O2). intros c Hc.
    specialize (Heq c Hc). unfold sem_edge in Heq. rewrite Hk in Heq.
    apply omap_code_inj. exact Heq.
Qed.
