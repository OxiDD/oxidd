(** * Canonicity of zero-suppressed BDDs

    [semz s fuel lvl r c] is the Boolean view over all levels of the set family
    denoted by [r], evaluated from level [lvl] on: levels skipped on the way
    down must be "lo" (child index 1).  On a well-formed ZBDD snapshot whose
    terminal value codes are 0 (Empty) / 1 (Base), two existing references with
    the same view from a common level [lvl] are the same reference.

    Different from the BDD case there is no "redundant node" argument: a node
    never denotes the empty family (its hi child is not Empty), so a node has
    a satisfying choice that takes its hi branch, and any reference lying
    strictly below is false under that choice. *)

From Coq Require Import List NArith PArith Bool Arith Lia FMapPositive.
From OxiVerif Require Import DD.Table DD.TableExtra DD.TableProofs DD.Canon.
Import ListNotations.

(** ** [all_lo] *)

Lemma all_lo_spec : forall c cnt from,
  all_lo c from cnt = true <-> forall l, from <= l < from + cnt -> c l = 1.
Proof.
  induction cnt as [|k IH]; intros from; simpl.
  - split; [intros _ l Hl; lia | reflexivity].
  - rewrite andb_true_iff, Nat.eqb_eq, IH. split.
    + intros [H1 H2] l Hl. destruct (Nat.eq_dec l from) as [->|Hne]; [exact H1 | apply H2; lia].
    + intros Hall. split; [apply Hall; lia | intros l Hl; apply Hall; lia].
Qed.

Lemma all_lo_ext : forall c c' cnt from,
  (forall l, from <= l -> c l = c' l) -> all_lo c from cnt = all_lo c' from cnt.
Proof.
  induction cnt as [|k IH]; intros from Hcc; simpl; [reflexivity|].
  rewrite (Hcc from (le_n _)). f_equal. apply IH. intros l Hl. apply Hcc. lia.
Qed.

Lemma all_lo_false : forall c cnt from l,
  from <= l < from + cnt -> c l <> 1 -> all_lo c from cnt = false.
Proof.
  intros c cnt from l Hl Hc. destruct (all_lo c from cnt) eqn:E; [|reflexivity].
  exfalso. apply Hc. apply (proj1 (all_lo_spec c cnt from) E). exact Hl.
Qed.

(** [lows c L]: the choice [c] with all levels above (numerically below) [L] set to lo *)
Definition lows (c : nat -> nat) (L : nat) : nat -> nat :=
  fun l => if Nat.ltb l L then 1 else c l.

Lemma lows_lt : forall c L l, l < L -> lows c L l = 1.
Proof. intros c L l Hl. unfold lows. destruct (Nat.ltb_spec l L); [reflexivity | lia]. Qed.

Lemma lows_ge : forall c L l, L <= l -> lows c L l = c l.
Proof. intros c L l Hl. unfold lows. destruct (Nat.ltb_spec l L); [lia | reflexivity]. Qed.

Section CanonZbdd.
Variable s : snap.
Hypothesis H : WF s.
Hypothesis Hkind : s_kind s = KZbdd.
Hypothesis Hterm : terms_kind s.

Definition semzn (lvl : nat) (r : ref) (c : nat -> nat) : option bool :=
  semz s (S (nlevels s)) lvl r c.

Lemma arity_zbdd : arity (s_kind s) = 2.
Proof. rewrite Hkind. reflexivity. Qed.

Lemma not_bcdd_z : s_kind s <> KBcdd.
Proof. rewrite Hkind. discriminate. Qed.

Lemma reduced_zbdd : forall ch, reduced s ch ->
  exists hi, hd_error ch = Some hi /\ forall t, eref hi = RT t -> term_val s t <> Some 0%N.
Proof. intros ch. unfold reduced. rewrite Hkind. auto. Qed.

Lemma choice_ok_lows : forall c L, choice_ok s c -> choice_ok s (lows c L).
Proof.
  intros c L Hc l. unfold lows. destruct (Nat.ltb l L); [rewrite arity_zbdd; lia | apply Hc].
Qed.

Lemma child_index_z : forall id nd i x,
  find_node s id = Some nd -> nth_error (nchildren nd) i = Some x -> i < 2.
Proof.
  intros id nd i x E He. rewrite <- arity_zbdd, <- (wf_arity s H id nd E).
  apply nth_error_Some. congruence.
Qed.

(** the view from [lvl] looks only at levels from [lvl] on *)
Lemma semz_ext : forall f lvl r c c',
  (forall l, lvl <= l -> c l = c' l) -> semz s f lvl r c = semz s f lvl r c'.
Proof.
  induction f as [|f IH]; intros lvl r c c' Hcc.
  - destruct r as [t|id]; [|reflexivity].
    rewrite !semz_T. rewrite (all_lo_ext c c' _ lvl Hcc). reflexivity.
  - destruct r as [t|id].
    + rewrite !semz_T. rewrite (all_lo_ext c c' _ lvl Hcc). reflexivity.
    + rewrite !semz_S. destruct (find_node s id) as [nd|] eqn:E; [|reflexivity].
      destruct (Nat.ltb_spec (nlevel nd) lvl) as [Hlt|Hge]; [reflexivity|].
      rewrite (all_lo_ext c c' _ lvl Hcc). rewrite <- (Hcc (nlevel nd) Hge).
      destruct (all_lo c' lvl (nlevel nd - lvl)); [|reflexivity].
      destruct (nth_error (nchildren nd) (c (nlevel nd))) as [e|]; [|reflexivity].
      apply IH. intros l Hl. apply Hcc. lia.
Qed.

(** one step down a node whose skipped levels are all lo *)
Lemma node_semz : forall id nd x lvl c,
  find_node s id = Some nd -> nth_error (nchildren nd) (c (nlevel nd)) = Some x ->
  lvl <= nlevel nd -> all_lo c lvl (nlevel nd - lvl) = true ->
  semzn lvl (RN id) c = semzn (S (nlevel nd)) (eref x) c.
Proof.
  intros id nd x lvl c E Hx Hl Hlo. unfold semzn. rewrite semz_S, E.
  destruct (Nat.ltb_spec (nlevel nd) lvl) as [Hlt|_]; [lia|].
  rewrite Hlo, Hx.
  destruct (child_nth s H id nd _ x E Hx) as [Ox Lx].
  pose proof (wf_level s H id nd E). pose proof (rlevel_le s H (eref x)).
  apply semz_fuel; auto; lia.
Qed.

(** skipped lo levels in front of a reference do not change the view *)
Lemma semz_lower : forall lvl r c, lvl <= rlevel s r ->
  all_lo c lvl (rlevel s r - lvl) = true ->
  semzn lvl r c = semzn (rlevel s r) r c.
Proof.
  intros lvl r c Hl Hlo. unfold semzn. destruct r as [t|id].
  - rewrite !semz_T. simpl in Hlo. rewrite Hlo. simpl rlevel. rewrite Nat.sub_diag. reflexivity.
  - rewrite !semz_S. destruct (find_node s id) as [nd|] eqn:E; [|reflexivity].
    rewrite (rlevel_node s id nd E) in *.
    destruct (Nat.ltb_spec (nlevel nd) lvl) as [Hlt|_]; [lia|].
    rewrite Nat.ltb_irrefl, Hlo, Nat.sub_diag. reflexivity.
Qed.

(** a choice that takes a non-lo branch at a level skipped by [r] makes [r] false *)
Lemma semz_skip_false : forall lvl L r c, ref_ok s r ->
  lvl <= L -> L < rlevel s r -> c L <> 1 -> semzn lvl r c = Some false.
Proof.
  intros lvl L r c Hok Hl HL Hc. unfold semzn. destruct r as [t|id].
  - rewrite semz_T. destruct Hok as [v E]. rewrite E. simpl in HL.
    rewrite (all_lo_false c _ lvl L) by (auto; lia). rewrite andb_false_r. reflexivity.
  - destruct Hok as [nd E]. rewrite semz_S, E. rewrite (rlevel_node s id nd E) in HL.
    destruct (Nat.ltb_spec (nlevel nd) lvl) as [Hlt|_]; [lia|].
    rewrite (all_lo_false c _ lvl L) by (auto; lia). reflexivity.
Qed.

(** ** No node denotes the empty family *)

Definition is_empty (r : ref) : Prop := exists t, r = RT t /\ term_val s t = Some 0%N.

(** from a satisfying choice of the hi child to one of the node that takes the hi branch *)
Lemma witness_step : forall id nd hi ch lvl,
  find_node s id = Some nd -> nth_error (nchildren nd) 0 = Some hi ->
  choice_ok s ch -> semzn (rlevel s (eref hi)) (eref hi) ch = Some true ->
  lvl <= nlevel nd ->
  exists c, choice_ok s c /\ c (nlevel nd) = 0 /\ semzn lvl (RN id) c = Some true.
Proof.
  intros id nd hi ch lvl E Hhi Hch Hsem Hl.
  destruct (child_nth s H id nd 0 hi E Hhi) as [Oh Lh].
  set (c := upd (lows ch (rlevel s (eref hi))) (nlevel nd) 0).
  assert (Hc0 : c (nlevel nd) = 0) by (unfold c; apply upd_same).
  exists c. split; [|split; [exact Hc0|]].
  - unfold c. apply choice_ok_upd; [apply choice_ok_lows; exact Hch | rewrite arity_zbdd; lia].
  - rewrite (node_semz id nd hi lvl c E).
    + rewrite semz_lower by
        (try lia; apply all_lo_spec; intros l Hl'; unfold c; rewrite upd_other by lia; apply lows_lt; lia).
      rewrite <- Hsem. unfold semzn. apply semz_ext. intros l Hl'.
      unfold c. rewrite upd_other by lia. apply lows_ge. exact Hl'.
    + rewrite Hc0. exact Hhi.
    + exact Hl.
    + apply all_lo_spec. intros l Hl'. unfold c. rewrite upd_other by lia. apply lows_lt. lia.
Qed.

Lemma hi_child : forall id nd, find_node s id = Some nd ->
  exists hi, nth_error (nchildren nd) 0 = Some hi /\ ~ is_empty (eref hi).
Proof.
  intros id nd E.
  destruct (reduced_zbdd _ (wf_reduced s H id nd E)) as [hi [Hh1 Hh2]].
  exists hi. split.
  - destruct (nchildren nd); simpl in *; congruence.
  - intros [t [Ht1 Ht2]]. apply (Hh2 t Ht1 Ht2).
Qed.

(** a terminal other than Empty is Base: true when every level goes lo *)
Lemma witness_term : forall t, ref_ok s (RT t) -> ~ is_empty (RT t) ->
  exists c, choice_ok s c /\ semzn (rlevel s (RT t)) (RT t) c = Some true.
Proof.
  intros t [v E] Hne. destruct (zbdd_term_code s t v Hkind Hterm E) as [->| ->].
  - exfalso. apply Hne. exists t. auto.
  - exists (fun _ => 1). split; [apply choice_ok_const; lia|].
    unfold semzn. rewrite semz_T, E. simpl rlevel. rewrite Nat.sub_diag. reflexivity.
Qed.

Lemma witness : forall k r, ref_ok s r -> nlevels s - rlevel s r <= k -> ~ is_empty r ->
  exists c, choice_ok s c /\ semzn (rlevel s r) r c = Some true.
Proof.
  induction k as [|k IH]; intros [t|id] Hok Hk Hne; try (apply (witness_term t Hok Hne));
    destruct Hok as [nd E]; rewrite (rlevel_node s id nd E) in *.
  - pose proof (wf_level s H id nd E). lia.
  - destruct (hi_child id nd E) as [hi [Hhi Hne']].
    destruct (child_nth s H id nd 0 hi E Hhi) as [Oh Lh].
    destruct (IH (eref hi) Oh ltac:(lia) Hne') as [ch [Hch Hsem]].
    destruct (witness_step id nd hi ch (nlevel nd) E Hhi Hch Hsem (le_n _)) as [c [Hc [_ Hs]]].
    exists c. auto.
Qed.

Lemma witness_node : forall id nd lvl, find_node s id = Some nd -> lvl <= nlevel nd ->
  exists c, choice_ok s c /\ c (nlevel nd) = 0 /\ semzn lvl (RN id) c = Some true.
Proof.
  intros id nd lvl E Hl.
  destruct (hi_child id nd E) as [hi [Hhi Hne']].
  destruct (child_nth s H id nd 0 hi E Hhi) as [Oh Lh].
  destruct (witness _ (eref hi) Oh (le_n _) Hne') as [ch [Hch Hsem]].
  apply (witness_step id nd hi ch lvl E Hhi Hch Hsem Hl).
Qed.

(** a node cannot have the same view as a reference strictly below it *)
Lemma node_above : forall r1 r2 lvl, ref_ok s r1 -> ref_ok s r2 ->
  lvl <= rlevel s r1 -> rlevel s r1 < rlevel s r2 ->
  (forall c, choice_ok s c -> semzn lvl r1 c = semzn lvl r2 c) -> False.
Proof.
  intros r1 r2 lvl O1 O2 Hl Hlt Heq. pose proof (rlevel_le s H r2) as Hle.
  destruct r1 as [t|id]; [simpl in Hlt; lia|]. destruct O1 as [nd E].
  rewrite (rlevel_node s id nd E) in Hl, Hlt.
  destruct (witness_node id nd lvl E Hl) as [c [Hc [Hc0 Hs]]].
  rewrite (Heq c Hc) in Hs.
  rewrite (semz_skip_false lvl (nlevel nd) r2 c O2 Hl Hlt ltac:(lia)) in Hs. discriminate.
Qed.

(** child [i] of a node, seen from just below the node, is the node's view
    under "skipped levels lo, this level := i" *)
Lemma child_semz : forall id nd i x lvl c,
  find_node s id = Some nd -> nth_error (nchildren nd) i = Some x -> lvl <= nlevel nd ->
  semzn lvl (RN id) (upd (lows c (nlevel nd)) (nlevel nd) i) = semzn (S (nlevel nd)) (eref x) c.
Proof.
  intros id nd i x lvl c E Hx Hl.
  rewrite (node_semz id nd x lvl _ E).
  - unfold semzn. apply semz_ext. intros l Hl'. rewrite upd_other by lia. apply lows_ge. lia.
  - rewrite upd_same. exact Hx.
  - exact Hl.
  - apply all_lo_spec. intros l Hl'. rewrite upd_other by lia. apply lows_lt. lia.
Qed.

Definition canon_upto (k : nat) : Prop :=
  forall lvl r1 r2, ref_ok s r1 -> ref_ok s r2 ->
    lvl <= rlevel s r1 -> lvl <= rlevel s r2 ->
    Nat.max (nlevels s - rlevel s r1) (nlevels s - rlevel s r2) <= k ->
    (forall c, choice_ok s c -> semzn lvl r1 c = semzn lvl r2 c) -> r1 = r2.

Lemma canon_all : forall k, canon_upto k.
Proof.
  induction k as [k IH] using lt_wf_ind. intros lvl r1 r2 O1 O2 L1 L2 Hk Heq.
  assert (Hlev : rlevel s r1 = rlevel s r2).
  { destruct (lt_eq_lt_dec (rlevel s r1) (rlevel s r2)) as [[Hlt|Hlev]|Hgt]; [exfalso | exact Hlev | exfalso].
    - apply (node_above r1 r2 lvl O1 O2 L1 Hlt Heq).
    - apply (node_above r2 r1 lvl O2 O1 L2 Hgt). intros c Hc. symmetry. apply Heq. exact Hc. }
  apply (same_level_refs s H r1 r2 O1 O2 Hlev).
  - (* two terminals: Base iff Base *)
    intros t1 t2 -> ->. destruct O1 as [v1 E1]. destruct O2 as [v2 E2].
    specialize (Heq (fun _ => 1) (choice_ok_const s 1 ltac:(lia))).
    unfold semzn in Heq. rewrite !semz_T, E1, E2 in Heq.
    assert (Hlo : all_lo (fun _ => 1) lvl (nlevels s - lvl) = true)
      by (apply all_lo_spec; reflexivity).
    rewrite Hlo, !andb_true_r in Heq. inversion Heq as [Hv].
    apply (term_val_inj s t1 t2 v1 H E1).
    destruct (zbdd_term_code s t1 v1 Hkind Hterm E1) as [->| ->],
             (zbdd_term_code s t2 v2 Hkind Hterm E2) as [->| ->];
      simpl in Hv; try discriminate; exact E2.
  - intros id1 id2 n1 n2 -> -> E1 E2 Hl i a b Ha Hb.
    pose proof (wf_level s H id1 n1 E1) as Hl1. pose proof (wf_level s H id2 n2 E2) as Hl2.
    rewrite (rlevel_node s id1 n1 E1) in L1, Hk. rewrite (rlevel_node s id2 n2 E2) in L2, Hk.
    destruct (child_nth s H id1 n1 i a E1 Ha) as [Oa La].
    destruct (child_nth s H id2 n2 i b E2 Hb) as [Ob Lb].
    apply (child_edge_eq s id1 id2 n1 n2 a b H not_bcdd_z E1 E2
             (nth_error_In _ _ Ha) (nth_error_In _ _ Hb)).
    apply (IH (Nat.max (nlevels s - rlevel s (eref a)) (nlevels s - rlevel s (eref b))))
      with (lvl := S (nlevel n1)); auto; try lia.
    intros c Hc.
    transitivity (semzn lvl (RN id1) (upd (lows c (nlevel n1)) (nlevel n1) i)).
    { symmetry. apply (child_semz id1 n1 i a lvl c E1 Ha L1). }
    rewrite Hl. rewrite <- (child_semz id2 n2 i b lvl c E2 Hb L2).
    apply Heq. apply choice_ok_upd; [apply choice_ok_lows; exact Hc |].
    rewrite arity_zbdd. exact (child_index_z id1 n1 i a E1 Ha).
Qed.

(** Canonicity, ZBDD, seen from any common level [lvl] *)
Theorem canon_zbdd_from : forall lvl r1 r2, ref_ok s r1 -> ref_ok s r2 ->
  lvl <= rlevel s r1 -> lvl <= rlevel s r2 ->
  (r1 = r2 <->
   forall c, choice_ok s c ->
     semz s (S (nlevels s)) lvl r1 c = semz s (S (nlevels s)) lvl r2 c).
Proof.
  intros lvl r1 r2 O1 O2 L1 L2. split.
  - intros ->. reflexivity.
  - intros Heq. apply (canon_all _ lvl r1 r2 O1 O2 L1 L2 (le_n _)). exact Heq.
Qed.

(** Canonicity, ZBDD: equal references iff equal Boolean views over all levels *)
Theorem canon_zbdd : forall r1 r2, ref_ok s r1 -> ref_ok s r2 ->
  (r1 = r2 <->
   forall c, choice_ok s c ->
     semz s (S (nlevels s)) 0 r1 c = semz s (S (nlevels s)) 0 r2 c).
Proof. intros r1 r2 O1 O2. apply canon_zbdd_from; auto; lia. Qed.

End CanonZbdd.

(** C01 for ZBDDs, in terms of handles and [sem_edge] *)
Theorem canon_zbdd_handles : forall s, WF s -> s_kind s = KZbdd -> terms_kind s ->
  forall h1 h2, In h1 (s_handles s) -> In h2 (s_handles s) ->
  (snd h1 = snd h2 <->
   forall c, choice_ok s c -> sem_edge s (snd h1) c = sem_edge s (snd h2) c).
Proof.
  intros s H Hk Ht h1 h2 H1 H2.
  destruct (wf_handles s H h1 H1) as [O1 T1]. destruct (wf_handles s H h2 H2) as [O2 T2].
  assert (Hnb : s_kind s <> KBcdd) by (rewrite Hk; discriminate).
  split.
  - intros ->. reflexivity.
  - intros Heq. apply edge_ext.
    + apply (canon_zbdd s H Hk Ht _ _ O1 O2). intros c Hc.
      specialize (Heq c Hc). unfold sem_edge in Heq. rewrite Hk in Heq.
      destruct (semz s (S (nlevels s)) 0 (eref (snd h1)) c) as [[|]|],
               (semz s (S (nlevels s)) 0 (eref (snd h2)) c) as [[|]|];
        simpl in Heq; congruence.
    + rewrite (T1 Hnb), (T2 Hnb). reflexivity.
Qed.
