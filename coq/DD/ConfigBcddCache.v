(** * C20x (a): BCDD apply cache enabled / disabled / any other cache - identical results

    Two runs of the same BCDD operation on the same table, with the same node
    store and the same schedule, but with two arbitrary (possibly different)
    lossy cache implementations holding arbitrary correct contents, and two
    arbitrary edge orders [lt1] / [lt2] (so the two runs may even recurse with
    swapped operand pairs): the resulting TABLES are identical and the
    returned EDGES are identical ([capply_*_g_agree]). *)

From Coq Require Import List NArith PArith Bool Arith Lia FMapPositive.
From OxiVerif Require Import DD.Table DD.TableProofs DD.Canon DD.CanonBcdd DD.Sem DD.Build DD.BuildProofs
  DD.PickInsert DD.Apply DD.ApplyProofs DD.ApplyBcdd DD.ApplyBcddProofs DD.ApplyBcddIte
  DD.ConfigApply DD.ConfigProofs DD.ConfigInsert DD.ConfigBcdd DD.ConfigBcddProofs.
Import ListNotations.

Section CacheExact.
Variable alloc : snap -> positive.
Hypothesis Halloc : alloc_ok alloc.
Variables lt1 lt2 : edge -> edge -> bool.
Variables C1 C2 : Type.
Variable cget1 : C1 -> N -> list edge -> option edge.
Variable cadd1 : C1 -> N -> list edge -> edge -> C1.
Variable cget2 : C2 -> N -> list edge -> option edge.
Variable cadd2 : C2 -> N -> list edge -> edge -> C2.
Hypothesis L1 : lossyC cget1 cadd1.
Hypothesis L2 : lossyC cget2 cadd2.

Notation ROK1 := (cresult_ok cget1).
Notation ROK2 := (cresult_ok cget2).
Notation COK1 := (CacheOKC cget1).
Notation COK2 := (CacheOKC cget2).

(** both runs succeed, with the same table and the same edge (the caches may differ) *)
Definition csame_out (r1 : option (snap * C1 * edge)) (r2 : option (snap * C2 * edge)) : Prop :=
  match r1, r2 with
  | Some (s1, _, a), Some (s2, _, b) => s1 = s2 /\ a = b
  | _, _ => False
  end.

Lemma csame_out_not : forall r1 r2, csame_out r1 r2 -> csame_out (onot C1 r1) (onot C2 r2).
Proof.
  intros [[[s1 c1] a]|] [[[s2 c2] b]|]; simpl; try contradiction. intros [-> ->]. auto.
Qed.

Lemma cunchanged_agree_l : forall s c1 c2 res2 Phi c1' r1,
  ROK1 s c1 (Some (s, c1', r1)) Phi -> ROK2 s c2 res2 Phi ->
  csame_out (Some (s, c1', r1)) res2.
Proof.
  intros s c1 c2 res2 Phi c1' r1 [sa [ca [ra [Ea [_ [_ [_ [Da _]]]]]]]]
         [sb [cb [rb [Eb [_ [_ [_ [_ Sb]]]]]]]].
  inversion Ea; subst sa ca ra. rewrite Eb. destruct (Sb r1 Da) as [-> ->]. simpl. auto.
Qed.

Lemma cunchanged_agree_r : forall s c1 c2 res1 Phi c2' r2,
  ROK1 s c1 res1 Phi -> ROK2 s c2 (Some (s, c2', r2)) Phi ->
  csame_out res1 (Some (s, c2', r2)).
Proof.
  intros s c1 c2 res1 Phi c2' r2 [sa [ca [ra [Ea [_ [_ [_ [_ Sa]]]]]]]]
         [sb [cb [rb [Eb [_ [_ [_ [Db _]]]]]]]].
  inversion Eb; subst sb cb rb. rewrite Ea. destruct (Sa r2 Db) as [-> ->]. simpl. auto.
Qed.

(** two closures that agree in every later state *)
Definition cruns_agree (s : snap)
  (run1 : sched -> snap -> C1 -> option (snap * C1 * edge))
  (run2 : sched -> snap -> C2 -> option (snap * C2 * edge)) : Prop :=
  forall x s' a b, BcOK s' -> extends s s' -> COK1 s' a -> COK2 s' b ->
    csame_out (run1 x s' a) (run2 x s' b).

Lemma cfork2_agree : forall x runT1 runE1 runT2 runE2 s c1 c2 P0 P1,
  BcOK s -> COK1 s c1 -> COK2 s c2 ->
  crun_ok C1 cget1 s runT1 P0 -> crun_ok C2 cget2 s runT2 P0 ->
  crun_ok C1 cget1 s runE1 P1 -> crun_ok C2 cget2 s runE2 P1 ->
  cruns_agree s runT1 runT2 -> cruns_agree s runE1 runE2 ->
  match cfork2 C1 x runT1 runE1 s c1, cfork2 C2 x runT2 runE2 s c2 with
  | Some (sa, _, ta, ea), Some (sb, _, tb, eb) => sa = sb /\ ta = tb /\ ea = eb
  | _, _ => False
  end.
Proof.
  exact (gfork2_agree edge _ BcOK DenC C1 C2 COK1 COK2 (ccacheok_extends C1 cget1) (ccacheok_extends C2 cget2)).
Qed.

Lemma cjoin2_agree : forall x runT1 runE1 runT2 runE2 s c1 c2 P0 P1 lvl code1 args1 code2 args2,
  BcOK s -> COK1 s c1 -> COK2 s c2 ->
  crun_ok C1 cget1 s runT1 P0 -> crun_ok C2 cget2 s runT2 P0 ->
  crun_ok C1 cget1 s runE1 P1 -> crun_ok C2 cget2 s runE2 P1 ->
  cruns_agree s runT1 runT2 -> cruns_agree s runE1 runE2 ->
  csame_out (cjoin2 alloc C1 cadd1 x runT1 runE1 s c1 lvl code1 args1)
            (cjoin2 alloc C2 cadd2 x runT2 runE2 s c2 lvl code2 args2).
Proof.
  intros x runT1 runE1 runT2 runE2 s c1 c2 P0 P1 lvl code1 args1 code2 args2
         B O1 O2 HT1 HT2 HE1 HE2 AT AE.
  pose proof (cfork2_agree x runT1 runE1 runT2 runE2 s c1 c2 P0 P1 B O1 O2 HT1 HT2 HE1 HE2 AT AE) as A.
  unfold cjoin2.
  destruct (cfork2 C1 x runT1 runE1 s c1) as [[[[sa ca] ta] ea]|]; [|contradiction].
  destruct (cfork2 C2 x runT2 runE2 s c2) as [[[[sb cb] tb] eb]|]; [|contradiction].
  destruct A as [<- [<- <-]].
  destruct (cmk_node_a alloc sa lvl ta ea) as [s3 h]. simpl. auto.
Qed.

Local Ltac dead R := let EE := fresh "EE" in destruct R as [? [? [? [EE _]]]]; discriminate EE.

(** the operands of the second run are those of the first, possibly swapped *)
Definition same_or_swapped (f g f' g' : edge) : Prop := (f' = f /\ g' = g) \/ (f' = g /\ g' = f).

(** the step after the terminal cases and the operand ordering *)
Lemma cbin_step_g_agree : forall op n
  (rec1 : sched -> snap -> C1 -> edge -> edge -> option (snap * C1 * edge))
  (rec2 : sched -> snap -> C2 -> edge -> edge -> option (snap * C2 * edge)),
  (forall x s c f g phi psi, BcOK s -> COK1 s c -> DenC s f phi -> DenC s g psi ->
     nlevels s - Nat.min (rlevel s (eref f)) (rlevel s (eref g)) < n ->
     ROK1 s c (rec1 x s c f g) (fun c0 => ceval op (phi c0) (psi c0))) ->
  (forall x s c f g phi psi, BcOK s -> COK2 s c -> DenC s f phi -> DenC s g psi ->
     nlevels s - Nat.min (rlevel s (eref f)) (rlevel s (eref g)) < n ->
     ROK2 s c (rec2 x s c f g) (fun c0 => ceval op (phi c0) (psi c0))) ->
  (forall x s a b f g f' g' phi psi, BcOK s -> COK1 s a -> COK2 s b -> DenC s f phi -> DenC s g psi ->
     same_or_swapped f g f' g' ->
     nlevels s - Nat.min (rlevel s (eref f)) (rlevel s (eref g)) < n ->
     csame_out (rec1 x s a f g) (rec2 x s b f' g')) ->
  forall x s c1 c2 f idf fnd g idg gnd phi psi,
    BcOK s -> COK1 s c1 -> COK2 s c2 -> DenC s f phi -> DenC s g psi ->
    eref f = RN idf -> find_node s idf = Some fnd ->
    eref g = RN idg -> find_node s idg = Some gnd ->
    nlevels s - Nat.min (nlevel fnd) (nlevel gnd) < S n ->
    csame_out (cbin_step_g alloc C1 cget1 cadd1 rec1 x s c1 op f fnd g gnd)
              (cbin_step_g alloc C2 cget2 cadd2 rec2 x s c2 op f fnd g gnd) /\
    csame_out (cbin_step_g alloc C1 cget1 cadd1 rec1 x s c1 op f fnd g gnd)
              (cbin_step_g alloc C2 cget2 cadd2 rec2 x s c2 op g gnd f fnd).
Proof.
  intros op n rec1 rec2 Hok1 Hok2 Hag x s c1 c2 f idf fnd g idg gnd phi psi
         B O1 O2 Df Dg Erf Ef Erg Eg Hfuel.
  pose proof (cbin_step_g_ok alloc Halloc C1 cget1 cadd1 L1 op n rec1 Hok1 x s c1 f idf fnd g idg gnd phi psi
                B O1 Df Dg Erf Ef Erg Eg Hfuel) as R1.
  pose proof (cbin_step_g_ok alloc Halloc C2 cget2 cadd2 L2 op n rec2 Hok2 x s c2 f idf fnd g idg gnd phi psi
                B O2 Df Dg Erf Ef Erg Eg Hfuel) as R2.
  assert (Hfuel' : nlevels s - Nat.min (nlevel gnd) (nlevel fnd) < S n) by lia.
  pose proof (cbin_step_g_ok alloc Halloc C2 cget2 cadd2 L2 op n rec2 Hok2 x s c2 g idg gnd f idf fnd psi phi
                B O2 Dg Df Erg Eg Erf Ef Hfuel') as R2s.
  apply (cresult_ok_ext C2 cget2 s c2 _ _ (fun c0 => ceval op (phi c0) (psi c0))) in R2s;
    [|intros c0 _; apply ceval_comm].
  pose proof (bc_wf s B) as H.
  pose proof (wf_level s H idf fnd Ef) as Hlf. pose proof (wf_level s H idg gnd Eg) as Hlg.
  unfold cbin_step_g in *.
  destruct (cget1 c1 (cop_code op) [f; g]) eqn:G1;
    [split; eapply cunchanged_agree_l; eauto|].
  rewrite (wf_stored s H idf fnd Ef), (wf_stored s H idg gnd Eg) in *.
  rewrite (Nat.min_comm (nlevel gnd) (nlevel fnd)) in *.
  set (lvl := Nat.min (nlevel fnd) (nlevel gnd)) in *. cbv zeta in *.
  destruct (ccof2_ok s f idf fnd phi lvl B Df Erf Ef ltac:(lia)) as [ft [fe [Ecf [Dft [Dfe [Lft Lfe]]]]]].
  destruct (ccof2_ok s g idg gnd psi lvl B Dg Erg Eg ltac:(lia)) as [gt' [ge [Ecg [Dgt [Dge [Lgt Lge]]]]]].
  rewrite Ecf, Ecg in *.
  assert (Ft : forall s', extends s s' -> nlevels s' - Nat.min (rlevel s' (eref ft)) (rlevel s' (eref gt')) < n).
  { intros s' X'. rewrite (ext_nlevels _ _ X'), (ext_rlevel _ _ _ X' (proj1 Dft)),
      (ext_rlevel _ _ _ X' (proj1 Dgt)). lia. }
  assert (Fe : forall s', extends s s' -> nlevels s' - Nat.min (rlevel s' (eref fe)) (rlevel s' (eref ge)) < n).
  { intros s' X'. rewrite (ext_nlevels _ _ X'), (ext_rlevel _ _ _ X' (proj1 Dfe)),
      (ext_rlevel _ _ _ X' (proj1 Dge)). lia. }
  assert (K1 : forall a b α β, DenC s a α -> DenC s b β ->
            (forall s', extends s s' -> nlevels s' - Nat.min (rlevel s' (eref a)) (rlevel s' (eref b)) < n) ->
            crun_ok C1 cget1 s (fun x' s' c' => rec1 x' s' c' a b) (fun c0 => ceval op (α c0) (β c0))).
  { intros a b α β Da Db F x' s' c' B' X' O'. apply Hok1; auto.
    - apply (denc_extends s s' _ _ B X' Da). - apply (denc_extends s s' _ _ B X' Db). }
  assert (K2 : forall a b α β, DenC s a α -> DenC s b β ->
            (forall s', extends s s' -> nlevels s' - Nat.min (rlevel s' (eref a)) (rlevel s' (eref b)) < n) ->
            crun_ok C2 cget2 s (fun x' s' c' => rec2 x' s' c' a b) (fun c0 => ceval op (α c0) (β c0))).
  { intros a b α β Da Db F x' s' c' B' X' O'. apply Hok2; auto.
    - apply (denc_extends s s' _ _ B X' Da). - apply (denc_extends s s' _ _ B X' Db). }
  assert (K2s : forall a b α β, DenC s a α -> DenC s b β ->
            (forall s', extends s s' -> nlevels s' - Nat.min (rlevel s' (eref a)) (rlevel s' (eref b)) < n) ->
            crun_ok C2 cget2 s (fun x' s' c' => rec2 x' s' c' b a) (fun c0 => ceval op (α c0) (β c0))).
  { intros a b α β Da Db F x' s' c' B' X' O'.
    apply (cresult_ok_ext C2 cget2 s' c' _ (fun c0 => ceval op (β c0) (α c0))); [|intros c0 _; apply ceval_comm].
    apply (K2 b a β α Db Da); auto. intros s0 X0. rewrite Nat.min_comm. apply F. exact X0. }
  assert (KA : forall a b a' b' α β, DenC s a α -> DenC s b β -> same_or_swapped a b a' b' ->
            (forall s', extends s s' -> nlevels s' - Nat.min (rlevel s' (eref a)) (rlevel s' (eref b)) < n) ->
            cruns_agree s (fun x' s' c' => rec1 x' s' c' a b) (fun x' s' c' => rec2 x' s' c' a' b')).
  { intros a b a' b' α β Da Db Hs F x' s' a0 b0 B' X' Oa' Ob'.
    apply (Hag x' s' a0 b0 a b a' b' α β B' Oa' Ob' (denc_extends s s' _ _ B X' Da) (denc_extends s s' _ _ B X' Db) Hs (F s' X')). }
  split.
  - destruct (cget2 c2 (cop_code op) [f; g]) eqn:G2; [eapply cunchanged_agree_r; eauto|].
    exact (cjoin2_agree x _ _ _ _ s c1 c2 _ _ _ _ _ _ _ B O1 O2
             (K1 ft gt' _ _ Dft Dgt Ft) (K2 ft gt' _ _ Dft Dgt Ft) (K1 fe ge _ _ Dfe Dge Fe) (K2 fe ge _ _ Dfe Dge Fe)
             (KA ft gt' ft gt' _ _ Dft Dgt (or_introl (conj eq_refl eq_refl)) Ft)
             (KA fe ge fe ge _ _ Dfe Dge (or_introl (conj eq_refl eq_refl)) Fe)).
  - destruct (cget2 c2 (cop_code op) [g; f]) eqn:G2; [eapply cunchanged_agree_r; eauto|].
    exact (cjoin2_agree x _ _ _ _ s c1 c2 _ _ _ _ _ _ _ B O1 O2
             (K1 ft gt' _ _ Dft Dgt Ft) (K2s ft gt' _ _ Dft Dgt Ft) (K1 fe ge _ _ Dfe Dge Fe) (K2s fe ge _ _ Dfe Dge Fe)
             (KA ft gt' gt' ft _ _ Dft Dgt (or_intror (conj eq_refl eq_refl)) Ft)
             (KA fe ge ge fe _ _ Dfe Dge (or_intror (conj eq_refl eq_refl)) Fe)).
Qed.

Theorem capply_bin_g_agree : forall op fuel x s c1 c2 f g f' g' phi psi,
  BcOK s -> COK1 s c1 -> COK2 s c2 -> DenC s f phi -> DenC s g psi ->
  same_or_swapped f g f' g' ->
  nlevels s - Nat.min (rlevel s (eref f)) (rlevel s (eref g)) < fuel ->
  csame_out (capply_bin_g alloc lt1 C1 cget1 cadd1 fuel x s c1 op f g)
            (capply_bin_g alloc lt2 C2 cget2 cadd2 fuel x s c2 op f' g').
Proof.
  intros op. induction fuel as [|n IH]; intros x s c1 c2 f g f' g' phi psi B O1 O2 Df Dg Hsw Hfuel; [lia|].
  pose proof (capply_bin_g_ok alloc Halloc lt1 C1 cget1 cadd1 L1 op (S n) x s c1 f g phi psi B O1 Df Dg Hfuel) as R1.
  assert (R2 : ROK2 s c2 (capply_bin_g alloc lt2 C2 cget2 cadd2 (S n) x s c2 op f' g')
                    (fun c0 => ceval op (phi c0) (psi c0))).
  { destruct Hsw as [[-> ->]|[-> ->]].
    - apply (capply_bin_g_ok alloc Halloc lt2 C2 cget2 cadd2 L2 op (S n) x s c2 f g phi psi B O2 Df Dg Hfuel).
    - apply (cresult_ok_ext C2 cget2 s c2 _ (fun c0 => ceval op (psi c0) (phi c0))); [|intros c0 _; apply ceval_comm].
      apply (capply_bin_g_ok alloc Halloc lt2 C2 cget2 cadd2 L2 op (S n) x s c2 g f psi phi B O2 Dg Df). lia. }
  rewrite (capply_bin_g_S alloc lt1 C1) in *. rewrite (capply_bin_g_S alloc lt2 C2) in *.
  pose proof (cterminal_sound s op f g phi psi B Df Dg) as T1.
  destruct (cterminal s op f g) as [r|fn gn|] eqn:ET1; [eapply cunchanged_agree_l; eauto | | contradiction].
  destruct T1 as [idf [idg [Erf [Ef [Erg Eg]]]]].
  assert (Hf2 : nlevels s - Nat.min (nlevel fn) (nlevel gn) < S n)
    by (rewrite Erf, Erg, (rlevel_node s idf fn Ef), (rlevel_node s idg gn Eg) in Hfuel; exact Hfuel).
  assert (Hf2' : nlevels s - Nat.min (nlevel gn) (nlevel fn) < S n) by lia.
  pose proof (cbin_step_g_agree op n _ _
                (fun x s c f g phi psi => capply_bin_g_ok alloc Halloc lt1 C1 cget1 cadd1 L1 op n x s c f g phi psi)
                (fun x s c f g phi psi => capply_bin_g_ok alloc Halloc lt2 C2 cget2 cadd2 L2 op n x s c f g phi psi)
                IH) as ST.
  destruct (ST x s c1 c2 f idf fn g idg gn phi psi B O1 O2 Df Dg Erf Ef Erg Eg Hf2) as [Sff Sfg].
  destruct (ST x s c1 c2 g idg gn f idf fn psi phi B O1 O2 Dg Df Erg Eg Erf Ef Hf2') as [Sgg Sgf].
  clear ST.
  destruct Hsw as [[-> ->]|[-> ->]].
  - rewrite ET1. destruct (lt1 f g), (lt2 f g); assumption.
  - pose proof (cterminal_sound s op g f psi phi B Dg Df) as T2.
    destruct (cterminal s op g f) as [r|gn2 fn2|]; [eapply cunchanged_agree_r; eauto | | contradiction].
    destruct T2 as [idg2 [idf2 [Erg2 [Eg2 [Erf2 Ef2]]]]].
    rewrite Erg in Erg2. inversion Erg2; subst idg2. rewrite Erf in Erf2. inversion Erf2; subst idf2.
    rewrite Eg in Eg2. inversion Eg2; subst gn2. rewrite Ef in Ef2. inversion Ef2; subst fn2.
    destruct (lt1 f g), (lt2 g f); assumption.
Qed.

Lemma same_refl : forall a b, same_or_swapped a b a b.
Proof. intros a b. left. auto. Qed.

(** the eight public binary operators *)
Theorem capply_op_g_agree : forall o fuel x s c1 c2 f g phi psi,
  BcOK s -> COK1 s c1 -> COK2 s c2 -> DenC s f phi -> DenC s g psi ->
  nlevels s - Nat.min (rlevel s (eref f)) (rlevel s (eref g)) < fuel ->
  csame_out (capply_op_g alloc lt1 C1 cget1 cadd1 fuel x s c1 o f g)
            (capply_op_g alloc lt2 C2 cget2 cadd2 fuel x s c2 o f g).
Proof.
  intros o fuel x s c1 c2 f g phi psi B O1 O2 Df Dg Hfuel.
  pose proof (denc_not s f phi Df) as Dnf. pose proof (denc_not s g psi Dg) as Dng.
  destruct o; unfold capply_op_g; try apply csame_out_not.
  - apply (capply_bin_g_agree CAnd fuel x s c1 c2 f g f g _ _ B O1 O2 Df Dg (same_refl _ _) Hfuel).
  - apply (capply_bin_g_agree CAnd fuel x s c1 c2 (enot f) (enot g) _ _ _ _ B O1 O2 Dnf Dng (same_refl _ _) Hfuel).
  - apply (capply_bin_g_agree CXor fuel x s c1 c2 f g f g _ _ B O1 O2 Df Dg (same_refl _ _) Hfuel).
  - apply (capply_bin_g_agree CXor fuel x s c1 c2 f g f g _ _ B O1 O2 Df Dg (same_refl _ _) Hfuel).
  - apply (capply_bin_g_agree CAnd fuel x s c1 c2 f g f g _ _ B O1 O2 Df Dg (same_refl _ _) Hfuel).
  - apply (capply_bin_g_agree CAnd fuel x s c1 c2 (enot f) (enot g) _ _ _ _ B O1 O2 Dnf Dng (same_refl _ _) Hfuel).
  - apply (capply_bin_g_agree CAnd fuel x s c1 c2 f (enot g) _ _ _ _ B O1 O2 Df Dng (same_refl _ _) Hfuel).
  - apply (capply_bin_g_agree CAnd fuel x s c1 c2 (enot f) g _ _ _ _ B O1 O2 Dnf Dg (same_refl _ _) Hfuel).
Qed.

(** [apply_ite]: the step after the terminal cases *)
Lemma cite_step_g_agree : forall n
  (rec1 : sched -> snap -> C1 -> edge -> edge -> edge -> option (snap * C1 * edge))
  (rec2 : sched -> snap -> C2 -> edge -> edge -> edge -> option (snap * C2 * edge)),
  (forall x s c f g h phi psi theta, BcOK s -> COK1 s c ->
     DenC s f phi -> DenC s g psi -> DenC s h theta ->
     nlevels s - Nat.min (Nat.min (rlevel s (eref f)) (rlevel s (eref g))) (rlevel s (eref h)) < n ->
     ROK1 s c (rec1 x s c f g h) (fun c0 => if phi c0 then psi c0 else theta c0)) ->
  (forall x s c f g h phi psi theta, BcOK s -> COK2 s c ->
     DenC s f phi -> DenC s g psi -> DenC s h theta ->
     nlevels s - Nat.min (Nat.min (rlevel s (eref f)) (rlevel s (eref g))) (rlevel s (eref h)) < n ->
     ROK2 s c (rec2 x s c f g h) (fun c0 => if phi c0 then psi c0 else theta c0)) ->
  (forall x s a b f g h phi psi theta, BcOK s -> COK1 s a -> COK2 s b ->
     DenC s f phi -> DenC s g psi -> DenC s h theta ->
     nlevels s - Nat.min (Nat.min (rlevel s (eref f)) (rlevel s (eref g))) (rlevel s (eref h)) < n ->
     csame_out (rec1 x s a f g h) (rec2 x s b f g h)) ->
  forall x s c1 c2 f idf fnd g idg gnd h idh hnd phi psi theta,
    BcOK s -> COK1 s c1 -> COK2 s c2 -> DenC s f phi -> DenC s g psi -> DenC s h theta ->
    eref f = RN idf -> find_node s idf = Some fnd ->
    eref g = RN idg -> find_node s idg = Some gnd ->
    eref h = RN idh -> find_node s idh = Some hnd ->
    nlevels s - Nat.min (Nat.min (nlevel fnd) (nlevel gnd)) (nlevel hnd) < S n ->
    csame_out (cite_step_g alloc C1 cget1 cadd1 rec1 x s c1 f fnd g gnd h hnd)
              (cite_step_g alloc C2 cget2 cadd2 rec2 x s c2 f fnd g gnd h hnd).
Proof.
  intros n rec1 rec2 Hok1 Hok2 Hag x s c1 c2 f idf fnd g idg gnd h idh hnd phi psi theta
         B O1 O2 Df Dg Dh Erf Ef Erg Eg Erh Eh Hfuel.
  pose proof (cite_step_g_ok alloc Halloc C1 cget1 cadd1 L1 n rec1 Hok1 x s c1 f idf fnd g idg gnd h idh hnd
                phi psi theta B O1 Df Dg Dh Erf Ef Erg Eg Erh Eh Hfuel) as R1.
  pose proof (cite_step_g_ok alloc Halloc C2 cget2 cadd2 L2 n rec2 Hok2 x s c2 f idf fnd g idg gnd h idh hnd
                phi psi theta B O2 Df Dg Dh Erf Ef Erg Eg Erh Eh Hfuel) as R2.
  pose proof (bc_wf s B) as H.
  pose proof (wf_level s H idf fnd Ef) as Hlf. pose proof (wf_level s H idg gnd Eg) as Hlg.
  pose proof (wf_level s H idh hnd Eh) as Hlh.
  unfold cite_step_g in *.
  destruct (cget1 c1 ccode_ite [f; g; h]) eqn:G1; [eapply cunchanged_agree_l; eauto|].
  destruct (cget2 c2 ccode_ite [f; g; h]) eqn:G2; [eapply cunchanged_agree_r; eauto|].
  clear R1 R2.
  rewrite (wf_stored s H idf fnd Ef), (wf_stored s H idg gnd Eg), (wf_stored s H idh hnd Eh).
  set (lvl := Nat.min (Nat.min (nlevel fnd) (nlevel gnd)) (nlevel hnd)) in *. cbv zeta.
  destruct (ccof2_ok s f idf fnd phi lvl B Df Erf Ef ltac:(lia)) as [ft [fe [Ecf [Dft [Dfe [Lft Lfe]]]]]].
  destruct (ccof2_ok s g idg gnd psi lvl B Dg Erg Eg ltac:(lia)) as [gt' [ge [Ecg [Dgt [Dge [Lgt Lge]]]]]].
  destruct (ccof2_ok s h idh hnd theta lvl B Dh Erh Eh ltac:(lia)) as [ht [he [Ech [Dht [Dhe [Lht Lhe]]]]]].
  rewrite Ecf, Ecg, Ech.
  assert (Ft : forall s', extends s s' ->
            nlevels s' - Nat.min (Nat.min (rlevel s' (eref ft)) (rlevel s' (eref gt'))) (rlevel s' (eref ht)) < n).
  { intros s' X'. rewrite (ext_nlevels _ _ X'), (ext_rlevel _ _ _ X' (proj1 Dft)),
      (ext_rlevel _ _ _ X' (proj1 Dgt)), (ext_rlevel _ _ _ X' (proj1 Dht)). lia. }
  assert (Fe : forall s', extends s s' ->
            nlevels s' - Nat.min (Nat.min (rlevel s' (eref fe)) (rlevel s' (eref ge))) (rlevel s' (eref he)) < n).
  { intros s' X'. rewrite (ext_nlevels _ _ X'), (ext_rlevel _ _ _ X' (proj1 Dfe)),
      (ext_rlevel _ _ _ X' (proj1 Dge)), (ext_rlevel _ _ _ X' (proj1 Dhe)). lia. }
  apply (cjoin2_agree x _ _ _ _ s c1 c2
           (fun c0 => if cofn phi lvl 0 c0 then cofn psi lvl 0 c0 else cofn theta lvl 0 c0)
           (fun c0 => if cofn phi lvl 1 c0 then cofn psi lvl 1 c0 else cofn theta lvl 1 c0)); auto.
  - intros x' s' c' B' X' O'. apply Hok1; auto.
    + apply (denc_extends s s' _ _ B X' Dft). + apply (denc_extends s s' _ _ B X' Dgt).
    + apply (denc_extends s s' _ _ B X' Dht).
  - intros x' s' c' B' X' O'. apply Hok2; auto.
    + apply (denc_extends s s' _ _ B X' Dft). + apply (denc_extends s s' _ _ B X' Dgt).
    + apply (denc_extends s s' _ _ B X' Dht).
  - intros x' s' c' B' X' O'. apply Hok1; auto.
    + apply (denc_extends s s' _ _ B X' Dfe). + apply (denc_extends s s' _ _ B X' Dge).
    + apply (denc_extends s s' _ _ B X' Dhe).
  - intros x' s' c' B' X' O'. apply Hok2; auto.
    + apply (denc_extends s s' _ _ B X' Dfe). + apply (denc_extends s s' _ _ B X' Dge).
    + apply (denc_extends s s' _ _ B X' Dhe).
  - intros x' s' a0 b0 B' X' Oa' Ob'.
    apply (Hag x' s' a0 b0 ft gt' ht _ _ _ B' Oa' Ob' (denc_extends s s' _ _ B X' Dft)
              (denc_extends s s' _ _ B X' Dgt) (denc_extends s s' _ _ B X' Dht) (Ft s' X')).
  - intros x' s' a0 b0 B' X' Oa' Ob'.
    apply (Hag x' s' a0 b0 fe ge he _ _ _ B' Oa' Ob' (denc_extends s s' _ _ B X' Dfe)
              (denc_extends s s' _ _ B X' Dge) (denc_extends s s' _ _ B X' Dhe) (Fe s' X')).
Qed.

Theorem capply_ite_g_agree : forall fuel x s c1 c2 f g h phi psi theta,
  BcOK s -> COK1 s c1 -> COK2 s c2 -> DenC s f phi -> DenC s g psi -> DenC s h theta ->
  nlevels s - Nat.min (Nat.min (rlevel s (eref f)) (rlevel s (eref g))) (rlevel s (eref h)) < fuel ->
  csame_out (capply_ite_g alloc lt1 C1 cget1 cadd1 fuel x s c1 f g h)
            (capply_ite_g alloc lt2 C2 cget2 cadd2 fuel x s c2 f g h).
Proof.
  induction fuel as [|n IH]; intros x s c1 c2 f g h phi psi theta B O1 O2 Df Dg Dh Hfuel; [lia|].
  pose proof (capply_ite_g_ok alloc Halloc lt1 C1 cget1 cadd1 L1 (S n) x s c1 f g h phi psi theta
                B O1 Df Dg Dh Hfuel) as R1.
  pose proof (capply_ite_g_ok alloc Halloc lt2 C2 cget2 cadd2 L2 (S n) x s c2 f g h phi psi theta
                B O2 Df Dg Dh Hfuel) as R2.
  pose proof (denc_not s f phi Df) as Dnf. pose proof (denc_not s g psi Dg) as Dng.
  pose proof (denc_not s h theta Dh) as Dnh.
  assert (Hfg : nlevels s - Nat.min (rlevel s (eref f)) (rlevel s (eref g)) < S n) by lia.
  assert (Hfh : nlevels s - Nat.min (rlevel s (eref f)) (rlevel s (eref h)) < S n) by lia.
  pose proof (capply_bin_g_agree CXor (S n) x s c1 c2 f g f g _ _ B O1 O2 Df Dg (same_refl _ _) Hfg) as Axor.
  pose proof (capply_bin_g_agree CAnd (S n) x s c1 c2 (enot f) (enot h) _ _ _ _ B O1 O2 Dnf Dnh (same_refl _ _) Hfh) as Anfnh.
  pose proof (capply_bin_g_agree CAnd (S n) x s c1 c2 (enot f) h _ _ _ _ B O1 O2 Dnf Dh (same_refl _ _) Hfh) as Anfh.
  pose proof (capply_bin_g_agree CAnd (S n) x s c1 c2 f g _ _ _ _ B O1 O2 Df Dg (same_refl _ _) Hfg) as Afg.
  pose proof (capply_bin_g_agree CAnd (S n) x s c1 c2 f (enot g) _ _ _ _ B O1 O2 Df Dng (same_refl _ _) Hfg) as Afng.
  pose proof (csame_out_not _ _ Axor) as Anxor.
  pose proof (csame_out_not _ _ Anfnh) as Annfnh.
  pose proof (csame_out_not _ _ Afng) as Anfng.
  rewrite (capply_ite_g_S alloc lt1 C1) in *. rewrite (capply_ite_g_S alloc lt2 C2) in *.
  destruct (ref_eqb (eref g) (eref h)).
  { destruct (Bool.eqb (etag g) (etag h)); [eapply cunchanged_agree_l; eauto | exact Anxor]. }
  destruct (ref_eqb (eref f) (eref g)).
  { destruct (Bool.eqb (etag f) (etag g)); [exact Annfnh | exact Anfh]. }
  destruct (ref_eqb (eref f) (eref h)).
  { destruct (Bool.eqb (etag f) (etag h)); [exact Afg | exact Anfng]. }
  destruct (cnode s f) as [[fnd|]|] eqn:Vf; [|eapply cunchanged_agree_l; eauto|dead R1].
  destruct (cnode s g) as [[gnd|]|] eqn:Vg; destruct (cnode s h) as [[hnd|]|] eqn:Vh;
    try (dead R1);
    try (destruct (etag h); [exact Afg | exact Anfng]);
    try (destruct (etag g); [exact Anfh | exact Annfnh]).
  clear R1 R2.
  destruct (cnode_NVI s f fnd Vf) as [idf [Erf Ef]]. destruct (cnode_NVI s g gnd Vg) as [idg [Erg Eg]].
  destruct (cnode_NVI s h hnd Vh) as [idh [Erh Eh]].
  rewrite Erf, Erg, Erh, (rlevel_node s idf fnd Ef), (rlevel_node s idg gnd Eg),
          (rlevel_node s idh hnd Eh) in Hfuel.
  apply (cite_step_g_agree n _ _
           (fun x s c f g h phi psi theta => capply_ite_g_ok alloc Halloc lt1 C1 cget1 cadd1 L1 n x s c f g h phi psi theta)
           (fun x s c f g h phi psi theta => capply_ite_g_ok alloc Halloc lt2 C2 cget2 cadd2 L2 n x s c f g h phi psi theta)
           IH x s c1 c2 f idf fnd g idg gnd h idh hnd phi psi theta); auto.
Qed.

(** the same statements for arbitrary existing operands and the standard fuel *)

Theorem capply_op_g_cache_exact : forall o fuel x s c1 c2 f g,
  BcOK s -> COK1 s c1 -> COK2 s c2 -> ref_ok s (eref f) -> ref_ok s (eref g) -> S (nlevels s) <= fuel ->
  csame_out (capply_op_g alloc lt1 C1 cget1 cadd1 fuel x s c1 o f g)
            (capply_op_g alloc lt2 C2 cget2 cadd2 fuel x s c2 o f g).
Proof.
  intros o fuel x s c1 c2 f g B O1 O2 Hf Hg F.
  destruct (denc_exists s f B Hf) as [phi Df]. destruct (denc_exists s g B Hg) as [psi Dg].
  apply (capply_op_g_agree o fuel x s c1 c2 f g phi psi B O1 O2 Df Dg). lia.
Qed.

Theorem capply_ite_g_cache_exact : forall fuel x s c1 c2 f g h,
  BcOK s -> COK1 s c1 -> COK2 s c2 -> ref_ok s (eref f) -> ref_ok s (eref g) -> ref_ok s (eref h) ->
  S (nlevels s) <= fuel ->
  csame_out (capply_ite_g alloc lt1 C1 cget1 cadd1 fuel x s c1 f g h)
            (capply_ite_g alloc lt2 C2 cget2 cadd2 fuel x s c2 f g h).
Proof.
  intros fuel x s c1 c2 f g h B O1 O2 Hf Hg Hh F.
  destruct (denc_exists s f B Hf) as [phi Df]. destruct (denc_exists s g B Hg) as [psi Dg].
  destruct (denc_exists s h B Hh) as [theta Dh].
  apply (capply_ite_g_agree fuel x s c1 c2 f g h phi psi theta B O1 O2 Df Dg Dh). lia.
Qed.

End CacheExact.
