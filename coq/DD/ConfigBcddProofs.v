(** * Correctness of the configuration-generic BCDD apply algorithms (DD/ConfigBcdd.v)

    - [cnode_step_a], [cmk_node_stable_a]: [reduce] on an arbitrary node store;
    - [cfork2_ok], [cjoin2_ok]: one fork/join step under an arbitrary schedule;
    - [capply_bin_g_ok], [capply_op_g_ok], [capply_ite_g_ok]: for every
      allocator, operand order, lossy cache and schedule the algorithms return
      a well-formed extension of the table, a correct cache and an edge
      denoting the connective of the operands' functions; if that function
      already has an edge, exactly that edge is returned and the table is
      unchanged ([cresult_ok] of DD/ApplyBcddProofs.v);
    - [capply_*_g_seq]: the instance [fresh_id] / [SSeq] is DD/ApplyBcdd.v. *)

From Coq Require Import List NArith PArith Bool Arith Lia FMapPositive.
From OxiVerif Require Import DD.Table DD.TableProofs DD.Canon DD.CanonBcdd DD.Sem DD.Build DD.BuildProofs
  DD.PickInsert DD.Apply DD.ApplyProofs DD.ApplyBcdd DD.ApplyBcddProofs DD.ApplyBcddIte
  DD.ConfigApply DD.ConfigProofs DD.ConfigInsert DD.ConfigBcdd.
Import ListNotations.

(** ** [reduce] = [cmk_node_a] *)

Section Alloc.
Variable alloc : snap -> positive.
Hypothesis Halloc : alloc_ok alloc.

Lemma cnode_step_a : forall s lvl t e P0 P1 s' h, BcOK s -> lvl < nlevels s ->
  DenC s t P0 -> DenC s e P1 -> indep P0 (S lvl) -> indep P1 (S lvl) ->
  cmk_node_a alloc s lvl t e = (s', h) ->
  BcOK s' /\ extends s s' /\
  DenC s' h (fun c => if Nat.eqb (c lvl) 0 then P0 c else P1 c).
Proof.
  intros s lvl t e P0 P1 s' h B Hl Dt De I0 I1 Hm.
  pose proof (bc_wf s B) as H. pose proof (bc_kind s B) as Hk.
  assert (Lt : S lvl <= rlevel s (eref t)) by (apply (denc_level s t P0); auto).
  assert (Le : S lvl <= rlevel s (eref e)) by (apply (denc_level s e P1); auto).
  unfold cmk_node_a in Hm. destruct (edge_eqb t e) eqn:Ete.
  - apply edge_eqb_true in Ete. subst e. inversion Hm; subst s' h.
    split; [exact B|]. split; [apply extends_refl|].
    apply (denc_ext s t P0); [exact Dt|]. intros c Hc.
    rewrite (denc_unique s t P0 P1 Dt De c Hc). destruct (Nat.eqb (c lvl) 0); reflexivity.
  - apply edge_eqb_false in Ete.
    set (tg := etag t) in *.
    set (ch := if tg then [untag t; enot e] else [t; e]).
    assert (Hm' : (let '(s1, r) := get_or_insert_a alloc s lvl ch in (s1, mkEdge (eref r) tg)) = (s', h))
      by (unfold ch; destruct tg; exact Hm).
    clear Hm.
    assert (Hlen : length ch = arity (s_kind s)) by (rewrite Hk; unfold ch; destruct tg; reflexivity).
    assert (Hce : forall x, In x ch -> ref_ok s (eref x) /\ lvl < rlevel s (eref x)).
    { intros x Hx. unfold ch in Hx. destruct tg; simpl in Hx; destruct Hx as [<-|[<-|[]]]; simpl;
        (split; [first [apply (proj1 Dt) | apply (proj1 De)] | lia]). }
    assert (Hred : reduced s ch).
    { unfold reduced. rewrite Hk. unfold ch. destruct tg eqn:Tg.
      - split; [|eexists; split; reflexivity].
        apply all_same_pair. intros A. apply Ete. inversion A as [[Er Tx]].
        apply edge_ext; [exact Er|]. fold tg. rewrite Tg. destruct (etag e); [reflexivity | discriminate].
      - split; [apply all_same_pair; exact Ete|]. exists t. split; [reflexivity | exact Tg]. }
    assert (Htags : s_kind s <> KBcdd -> forall x, In x ch -> etag x = false) by congruence.
    destruct (get_or_insert_a alloc s lvl ch) as [s1 r] eqn:Eg. inversion Hm'; subst s' h. clear Hm'.
    destruct (goi_any_a alloc Halloc s lvl ch H Hl Hlen Hce Hred Htags s1 r Eg)
      as [W' [X [[id [nd [Er [E' [El Ec]]]]] _]]].
    pose proof (bcok_extends s s1 B X W') as B'.
    split; [exact B'|]. split; [exact X|]. subst r. simpl eref.
    split; [exists nd; exact E'|]. intros c Hc.
    pose proof (Hc lvl) as Hc2.
    pose proof (denc_extends s s1 t P0 B X Dt) as Dt1.
    pose proof (denc_extends s s1 e P1 B X De) as De1.
    assert (Hch : forall i x, nth_error ch i = Some x -> c lvl = i ->
              semc s1 (S (nlevels s1)) (mkEdge (RN id) tg) c
              = option_map (xorb tg) (semc s1 (S (nlevels s1)) x c)).
    { intros i x Hx Hi. apply (semc_node s1 id nd tg c x W' E'). rewrite El, Ec, Hi. exact Hx. }
    destruct (c lvl) as [|[|k]] eqn:Ecl; [| |lia]; simpl Nat.eqb; cbv iota.
    + unfold ch in Hch. destruct tg eqn:Tg.
      * rewrite (Hch 0 (untag t) eq_refl eq_refl).
        replace (untag t) with (retag true t)
          by (unfold retag, untag; fold tg; rewrite Tg; reflexivity).
        rewrite semc_retag, (proj2 Dt1 c Hc). simpl. destruct (P0 c); reflexivity.
      * rewrite (Hch 0 t eq_refl eq_refl), (proj2 Dt1 c Hc). simpl. destruct (P0 c); reflexivity.
    + unfold ch in Hch. destruct tg eqn:Tg.
      * rewrite (Hch 1 (enot e) eq_refl eq_refl).
        rewrite semc_enot, (proj2 De1 c Hc). simpl. destruct (P1 c); reflexivity.
      * rewrite (Hch 1 e eq_refl eq_refl), (proj2 De1 c Hc). simpl. destruct (P1 c); reflexivity.
Qed.

(** if the function to be built already has an edge, [cmk_node_a] returns it
    and leaves the table alone *)
Lemma cmk_node_stable_a : forall s lvl t e P0 P1 s' h r0, BcOK s -> lvl < nlevels s ->
  DenC s t P0 -> DenC s e P1 -> indep P0 (S lvl) -> indep P1 (S lvl) ->
  cmk_node_a alloc s lvl t e = (s', h) ->
  DenC s r0 (fun c => if Nat.eqb (c lvl) 0 then P0 c else P1 c) ->
  s' = s /\ h = r0.
Proof.
  intros s lvl t e P0 P1 s' h r0 B Hl Dt De I0 I1 Hm D0.
  destruct (cnode_step_a s lvl t e P0 P1 s' h B Hl Dt De I0 I1 Hm) as [B' [X Dh]].
  assert (Eh : h = r0) by (apply (denc_canon s' _ _ _ B' Dh (denc_extends s s' _ _ B X D0))).
  split; [|exact Eh].
  unfold cmk_node_a in Hm. destruct (edge_eqb t e); [inversion Hm; reflexivity|].
  assert (Hgoi : forall ch tg, (let '(s1, r) := get_or_insert_a alloc s lvl ch in (s1, mkEdge (eref r) tg)) = (s', h) ->
            s' = s).
  { intros ch tg Hg. unfold get_or_insert_a in Hg.
    destruct (find_dup s lvl ch); inversion Hg as [[Es Ehh]]; [reflexivity|].
    exfalso. rewrite <- Eh, <- Ehh in D0. destruct (proj1 D0) as [nd En]. simpl in En.
    rewrite Halloc in En. discriminate. }
  destruct (etag t); eapply Hgoi; exact Hm.
Qed.

End Alloc.

(** ** One fork/join step under an arbitrary schedule *)

Section Gen.
Variable alloc : snap -> positive.
Hypothesis Halloc : alloc_ok alloc.
Variable lt : edge -> edge -> bool.
Variable C : Type.
Variable cget : C -> N -> list edge -> option edge.
Variable cadd : C -> N -> list edge -> edge -> C.
Hypothesis Hlossy : lossyC cget cadd.

Notation ROK := (cresult_ok cget).
Notation COK := (CacheOKC cget).

(** a closure of the recursion computes [P] in every later state of table [s]
    (whatever other closures added in the meantime, whatever the cache holds),
    under every schedule *)
Definition crun_ok (s : snap) (run : sched -> snap -> C -> option (snap * C * edge))
  (P : (nat -> nat) -> bool) : Prop :=
  forall x s' c', BcOK s' -> extends s s' -> COK s' c' -> ROK s' c' (run x s' c') P.

Lemma cfork2_ok : forall x runT runE s c P0 P1,
  BcOK s -> COK s c -> crun_ok s runT P0 -> crun_ok s runE P1 ->
  exists s2 c2 t e, cfork2 C x runT runE s c = Some (s2, c2, t, e) /\
    BcOK s2 /\ extends s s2 /\ COK s2 c2 /\ DenC s2 t P0 /\ DenC s2 e P1 /\
    (forall q0 q1, DenC s q0 P0 -> DenC s q1 P1 -> s2 = s /\ t = q0 /\ e = q1).
Proof.
  exact (gfork2_ok edge _ BcOK DenC denc_extends C COK (ccacheok_extends C cget)).
Qed.

Lemma cjoin2_ok : forall x runT runE s c lvl code args Phi,
  BcOK s -> COK s c -> lvl < nlevels s -> indep Phi lvl ->
  crun_ok s runT (cofn Phi lvl 0) -> crun_ok s runE (cofn Phi lvl 1) ->
  (forall s3 r, BcOK s3 -> extends s s3 -> DenC s3 r Phi -> centry_ok s3 code args r) ->
  ROK s c (cjoin2 alloc C cadd x runT runE s c lvl code args) Phi.
Proof.
  intros x runT runE s c lvl code args Phi B O Hlvl I HT HE Hent. unfold cjoin2.
  destruct (cfork2_ok x runT runE s c _ _ B O HT HE)
    as [s2 [c2 [t [e [Ef [B2 [X2 [O2 [Dt [De Sf]]]]]]]]]].
  rewrite Ef. destruct (cmk_node_a alloc s2 lvl t e) as [s3 h] eqn:Em.
  assert (I0 : indep (cofn Phi lvl 0) (S lvl)) by (apply (indep_cofn Phi lvl lvl 0 I); lia).
  assert (I1 : indep (cofn Phi lvl 1) (S lvl)) by (apply (indep_cofn Phi lvl lvl 1 I); lia).
  assert (Hl2 : lvl < nlevels s2) by (rewrite (ext_nlevels _ _ X2); exact Hlvl).
  destruct (cnode_step_a alloc Halloc s2 lvl t e _ _ s3 h B2 Hl2 Dt De I0 I1 Em) as [B3 [X3 Dh]].
  assert (X03 : extends s s3) by (eapply extends_trans; eauto).
  assert (Heq : forall c0, bchoice c0 ->
            (if Nat.eqb (c0 lvl) 0 then cofn Phi lvl 0 c0 else cofn Phi lvl 1 c0) = Phi c0).
  { intros c0 Hc. rewrite (shannon_pick c0 lvl (fun i => cofn Phi lvl i c0) Hc).
    apply cofn_self; assumption. }
  assert (Dres : DenC s3 h Phi) by (apply (denc_ext _ _ _ _ Dh Heq)).
  exists s3, (cadd c2 code args h), h.
  split; [reflexivity|]. split; [exact B3|]. split; [exact X03|].
  split; [|split; [exact Dres|]].
  { apply (ccacheok_add C cget cadd Hlossy); [apply (ccacheok_extends C cget s2 s3 c2 B2 X3 O2)|].
    apply Hent; assumption. }
  intros r0 D0.
  assert (L0 : lvl <= rlevel s (eref r0)) by (apply (denc_level s r0 Phi lvl B D0 ltac:(lia) I)).
  destruct (denc_cof_exists s r0 _ lvl 0 B D0 L0 Hlvl ltac:(lia)) as [q0 Dq0].
  destruct (denc_cof_exists s r0 _ lvl 1 B D0 L0 Hlvl ltac:(lia)) as [q1 Dq1].
  destruct (Sf q0 q1 Dq0 Dq1) as [-> [-> ->]].
  apply (cmk_node_stable_a alloc Halloc s lvl q0 q1 _ _ s3 h r0 B Hlvl Dt De I0 I1 Em).
  apply (denc_ext s r0 _ _ D0). intros c0 Hc. symmetry. apply Heq. exact Hc.
Qed.

(** ** [apply_bin] *)

Lemma cbin_step_g_ok : forall op n (rec : sched -> snap -> C -> edge -> edge -> option (snap * C * edge)),
  (forall x s c f g phi psi, BcOK s -> COK s c -> DenC s f phi -> DenC s g psi ->
     nlevels s - Nat.min (rlevel s (eref f)) (rlevel s (eref g)) < n ->
     ROK s c (rec x s c f g) (fun c0 => ceval op (phi c0) (psi c0))) ->
  forall x s c f idf fnd g idg gnd phi psi,
    BcOK s -> COK s c -> DenC s f phi -> DenC s g psi ->
    eref f = RN idf -> find_node s idf = Some fnd ->
    eref g = RN idg -> find_node s idg = Some gnd ->
    nlevels s - Nat.min (nlevel fnd) (nlevel gnd) < S n ->
    ROK s c (cbin_step_g alloc C cget cadd rec x s c op f fnd g gnd)
        (fun c0 => ceval op (phi c0) (psi c0)).
Proof.
  intros op n rec IH x s c f idf fnd g idg gnd phi psi B O Df Dg Erf Ef Erg Eg Hfuel.
  pose proof (bc_wf s B) as H.
  pose proof (wf_level s H idf fnd Ef) as Hlf. pose proof (wf_level s H idg gnd Eg) as Hlg.
  unfold cbin_step_g.
  destruct (cget c (cop_code op) [f; g]) as [h|] eqn:Ec.
  - destruct (O _ _ _ Ec op eq_refl) as [pa [pb [Da [Db Dh]]]].
    apply cresult_ok_here; auto. apply (denc_ext s h _ _ Dh). intros c0 Hc.
    rewrite (denc_unique s _ pa phi Da Df c0 Hc), (denc_unique s _ pb psi Db Dg c0 Hc). reflexivity.
  - rewrite (wf_stored s H idf fnd Ef), (wf_stored s H idg gnd Eg).
    set (lvl := Nat.min (nlevel fnd) (nlevel gnd)) in *. cbv zeta.
    destruct (ccof2_ok s f idf fnd phi lvl B Df Erf Ef ltac:(lia)) as [ft [fe [Ecf [Dft [Dfe [Lft Lfe]]]]]].
    destruct (ccof2_ok s g idg gnd psi lvl B Dg Erg Eg ltac:(lia)) as [gt' [ge [Ecg [Dgt [Dge [Lgt Lge]]]]]].
    rewrite Ecf, Ecg.
    assert (Hlvl : lvl < nlevels s) by lia.
    assert (Ip : indep phi (nlevel fnd)).
    { rewrite <- (rlevel_node s idf fnd Ef), <- Erf. apply (denc_indep s _ phi H Df). }
    assert (Iq : indep psi (nlevel gnd)).
    { rewrite <- (rlevel_node s idg gnd Eg), <- Erg. apply (denc_indep s _ psi H Dg). }
    apply cjoin2_ok; auto.
    + intros u v Hu Hv Euv. f_equal.
      * apply (indep_mono phi _ lvl Ip ltac:(lia)); auto.
      * apply (indep_mono psi _ lvl Iq ltac:(lia)); auto.
    + intros x' s' c' B' X' O'.
      apply (IH x' s' c' ft gt' (cofn phi lvl 0) (cofn psi lvl 0) B' O'
                (denc_extends s s' _ _ B X' Dft) (denc_extends s s' _ _ B X' Dgt)).
      rewrite (ext_nlevels _ _ X'), (ext_rlevel _ _ _ X' (proj1 Dft)), (ext_rlevel _ _ _ X' (proj1 Dgt)). lia.
    + intros x' s' c' B' X' O'.
      apply (IH x' s' c' fe ge (cofn phi lvl 1) (cofn psi lvl 1) B' O'
                (denc_extends s s' _ _ B X' Dfe) (denc_extends s s' _ _ B X' Dge)).
      rewrite (ext_nlevels _ _ X'), (ext_rlevel _ _ _ X' (proj1 Dfe)), (ext_rlevel _ _ _ X' (proj1 Dge)). lia.
    + intros s3 r B3 X3 Dr o Ho. apply cop_code_inj in Ho. subst o.
      exists phi, psi. split; [apply (denc_extends s s3 _ _ B X3 Df)|].
      split; [apply (denc_extends s s3 _ _ B X3 Dg) | exact Dr].
Qed.

Lemma capply_bin_g_S : forall n x s c op f g,
  capply_bin_g alloc lt C cget cadd (S n) x s c op f g =
  match cterminal s op f g with
  | KFail => None
  | KDone h => Some (s, c, h)
  | KNodes fnode gnode =>
    if lt f g then cbin_step_g alloc C cget cadd
                     (fun x' s' c' f' g' => capply_bin_g alloc lt C cget cadd n x' s' c' op f' g') x s c op f fnode g gnode
    else cbin_step_g alloc C cget cadd
           (fun x' s' c' f' g' => capply_bin_g alloc lt C cget cadd n x' s' c' op f' g') x s c op g gnode f fnode
  end.
Proof. reflexivity. Qed.

Theorem capply_bin_g_ok : forall op fuel x s c f g phi psi,
  BcOK s -> COK s c -> DenC s f phi -> DenC s g psi ->
  nlevels s - Nat.min (rlevel s (eref f)) (rlevel s (eref g)) < fuel ->
  ROK s c (capply_bin_g alloc lt C cget cadd fuel x s c op f g)
      (fun c0 => ceval op (phi c0) (psi c0)).
Proof.
  intros op. induction fuel as [|n IH]; intros x s c f g phi psi B O Df Dg Hfuel; [lia|].
  rewrite capply_bin_g_S.
  pose proof (cterminal_sound s op f g phi psi B Df Dg) as T.
  destruct (cterminal s op f g) as [r|fn gn|]; [| |contradiction].
  - apply cresult_ok_here; auto.
  - destruct T as [idf [idg [Erf [Ef [Erg Eg]]]]].
    rewrite Erf, Erg, (rlevel_node s idf fn Ef), (rlevel_node s idg gn Eg) in Hfuel.
    destruct (lt f g).
    + apply (cbin_step_g_ok op n _ IH x s c f idf fn g idg gn phi psi); auto.
    + apply (cresult_ok_ext C cget s c _ (fun c0 => ceval op (psi c0) (phi c0))).
      * apply (cbin_step_g_ok op n _ IH x s c g idg gn f idf fn psi phi); auto. lia.
      * intros c0 _. apply ceval_comm.
Qed.

(** ** The eight binary operators *)

Theorem capply_op_g_ok : forall o fuel x s c f g phi psi,
  BcOK s -> COK s c -> DenC s f phi -> DenC s g psi ->
  nlevels s - Nat.min (rlevel s (eref f)) (rlevel s (eref g)) < fuel ->
  ROK s c (capply_op_g alloc lt C cget cadd fuel x s c o f g)
      (fun c0 => eval_bop o (phi c0) (psi c0)).
Proof.
  intros o fuel x s c f g phi psi B O Df Dg Hfuel.
  pose proof (denc_not s f phi Df) as Dnf. pose proof (denc_not s g psi Dg) as Dng.
  Local Ltac ttg phi psi := let c0 := fresh "c0" in intros c0 _; cbv beta; destruct (phi c0); destruct (psi c0); reflexivity.
  destruct o; unfold capply_op_g.
  - apply (cresult_ok_ext C cget s c _ _ _ (capply_bin_g_ok CAnd fuel x s c f g phi psi B O Df Dg Hfuel)). ttg phi psi.
  - apply (cresult_ok_ext C cget s c _ _ _
             (cresult_ok_not C cget s c _ _ (capply_bin_g_ok CAnd fuel x s c (enot f) (enot g) _ _ B O Dnf Dng Hfuel))).
    ttg phi psi.
  - apply (cresult_ok_ext C cget s c _ _ _ (capply_bin_g_ok CXor fuel x s c f g phi psi B O Df Dg Hfuel)). ttg phi psi.
  - apply (cresult_ok_ext C cget s c _ _ _
             (cresult_ok_not C cget s c _ _ (capply_bin_g_ok CXor fuel x s c f g phi psi B O Df Dg Hfuel))).
    ttg phi psi.
  - apply (cresult_ok_ext C cget s c _ _ _
             (cresult_ok_not C cget s c _ _ (capply_bin_g_ok CAnd fuel x s c f g phi psi B O Df Dg Hfuel))).
    ttg phi psi.
  - apply (cresult_ok_ext C cget s c _ _ _ (capply_bin_g_ok CAnd fuel x s c (enot f) (enot g) _ _ B O Dnf Dng Hfuel)).
    ttg phi psi.
  - apply (cresult_ok_ext C cget s c _ _ _
             (cresult_ok_not C cget s c _ _ (capply_bin_g_ok CAnd fuel x s c f (enot g) _ _ B O Df Dng Hfuel))).
    ttg phi psi.
  - apply (cresult_ok_ext C cget s c _ _ _ (capply_bin_g_ok CAnd fuel x s c (enot f) g _ _ B O Dnf Dg Hfuel)).
    ttg phi psi.
Qed.

(** ** [apply_ite] *)

Lemma cite_step_g_ok : forall n (rec : sched -> snap -> C -> edge -> edge -> edge -> option (snap * C * edge)),
  (forall x s c f g h phi psi theta, BcOK s -> COK s c ->
     DenC s f phi -> DenC s g psi -> DenC s h theta ->
     nlevels s - Nat.min (Nat.min (rlevel s (eref f)) (rlevel s (eref g))) (rlevel s (eref h)) < n ->
     ROK s c (rec x s c f g h) (fun c0 => if phi c0 then psi c0 else theta c0)) ->
  forall x s c f idf fnd g idg gnd h idh hnd phi psi theta,
    BcOK s -> COK s c -> DenC s f phi -> DenC s g psi -> DenC s h theta ->
    eref f = RN idf -> find_node s idf = Some fnd ->
    eref g = RN idg -> find_node s idg = Some gnd ->
    eref h = RN idh -> find_node s idh = Some hnd ->
    nlevels s - Nat.min (Nat.min (nlevel fnd) (nlevel gnd)) (nlevel hnd) < S n ->
    ROK s c (cite_step_g alloc C cget cadd rec x s c f fnd g gnd h hnd)
        (fun c0 => if phi c0 then psi c0 else theta c0).
Proof.
  intros n rec IH x s c f idf fnd g idg gnd h idh hnd phi psi theta B O Df Dg Dh
    Erf Ef Erg Eg Erh Eh Hfuel.
  pose proof (bc_wf s B) as H.
  pose proof (wf_level s H idf fnd Ef) as Hlf. pose proof (wf_level s H idg gnd Eg) as Hlg.
  pose proof (wf_level s H idh hnd Eh) as Hlh.
  unfold cite_step_g.
  destruct (cget c ccode_ite [f; g; h]) as [r|] eqn:Ec.
  - destruct (O _ _ _ Ec eq_refl) as [pa [pb [pc [Da [Db [Dc Dr]]]]]].
    apply cresult_ok_here; auto. apply (denc_ext s r _ _ Dr). intros c0 Hc.
    rewrite (denc_unique s _ pa phi Da Df c0 Hc), (denc_unique s _ pb psi Db Dg c0 Hc),
            (denc_unique s _ pc theta Dc Dh c0 Hc). reflexivity.
  - rewrite (wf_stored s H idf fnd Ef), (wf_stored s H idg gnd Eg), (wf_stored s H idh hnd Eh).
    set (lvl := Nat.min (Nat.min (nlevel fnd) (nlevel gnd)) (nlevel hnd)) in *. cbv zeta.
    destruct (ccof2_ok s f idf fnd phi lvl B Df Erf Ef ltac:(lia)) as [ft [fe [Ecf [Dft [Dfe [Lft Lfe]]]]]].
    destruct (ccof2_ok s g idg gnd psi lvl B Dg Erg Eg ltac:(lia)) as [gt' [ge [Ecg [Dgt [Dge [Lgt Lge]]]]]].
    destruct (ccof2_ok s h idh hnd theta lvl B Dh Erh Eh ltac:(lia)) as [ht [he [Ech [Dht [Dhe [Lht Lhe]]]]]].
    rewrite Ecf, Ecg, Ech.
    assert (Hlvl : lvl < nlevels s) by lia.
    assert (Ip : indep phi (nlevel fnd)).
    { rewrite <- (rlevel_node s idf fnd Ef), <- Erf. apply (denc_indep s _ phi H Df). }
    assert (Iq : indep psi (nlevel gnd)).
    { rewrite <- (rlevel_node s idg gnd Eg), <- Erg. apply (denc_indep s _ psi H Dg). }
    assert (Ir : indep theta (nlevel hnd)).
    { rewrite <- (rlevel_node s idh hnd Eh), <- Erh. apply (denc_indep s _ theta H Dh). }
    apply cjoin2_ok; auto.
    + intros u v Hu Hv Euv.
      rewrite (indep_mono phi _ lvl Ip ltac:(lia) u v Hu Hv Euv).
      rewrite (indep_mono psi _ lvl Iq ltac:(lia) u v Hu Hv Euv).
      rewrite (indep_mono theta _ lvl Ir ltac:(lia) u v Hu Hv Euv). reflexivity.
    + intros x' s' c' B' X' O'.
      apply (IH x' s' c' ft gt' ht (cofn phi lvl 0) (cofn psi lvl 0) (cofn theta lvl 0) B' O'
                (denc_extends s s' _ _ B X' Dft) (denc_extends s s' _ _ B X' Dgt)
                (denc_extends s s' _ _ B X' Dht)).
      rewrite (ext_nlevels _ _ X'), (ext_rlevel _ _ _ X' (proj1 Dft)),
              (ext_rlevel _ _ _ X' (proj1 Dgt)), (ext_rlevel _ _ _ X' (proj1 Dht)). lia.
    + intros x' s' c' B' X' O'.
      apply (IH x' s' c' fe ge he (cofn phi lvl 1) (cofn psi lvl 1) (cofn theta lvl 1) B' O'
                (denc_extends s s' _ _ B X' Dfe) (denc_extends s s' _ _ B X' Dge)
                (denc_extends s s' _ _ B X' Dhe)).
      rewrite (ext_nlevels _ _ X'), (ext_rlevel _ _ _ X' (proj1 Dfe)),
              (ext_rlevel _ _ _ X' (proj1 Dge)), (ext_rlevel _ _ _ X' (proj1 Dhe)). lia.
    + intros s3 r B3 X3 Dr _. exists phi, psi, theta.
      split; [apply (denc_extends s s3 _ _ B X3 Df)|].
      split; [apply (denc_extends s s3 _ _ B X3 Dg)|].
      split; [apply (denc_extends s s3 _ _ B X3 Dh) | exact Dr].
Qed.

Lemma capply_ite_g_S : forall n x s c f g h,
  capply_ite_g alloc lt C cget cadd (S n) x s c f g h =
    if ref_eqb (eref g) (eref h) then
      if Bool.eqb (etag g) (etag h) then Some (s, c, g)
      else onot C (capply_bin_g alloc lt C cget cadd (S n) x s c CXor f g)
    else if ref_eqb (eref f) (eref g) then
      if Bool.eqb (etag f) (etag g) then onot C (capply_bin_g alloc lt C cget cadd (S n) x s c CAnd (enot f) (enot h))
      else capply_bin_g alloc lt C cget cadd (S n) x s c CAnd (enot f) h
    else if ref_eqb (eref f) (eref h) then
      if Bool.eqb (etag f) (etag h) then capply_bin_g alloc lt C cget cadd (S n) x s c CAnd f g
      else onot C (capply_bin_g alloc lt C cget cadd (S n) x s c CAnd f (enot g))
    else
      match cnode s f with
      | None => None
      | Some NVT => Some (s, c, if etag f then h else g)
      | Some (NVI fnode) =>
        match cnode s g, cnode s h with
        | Some (NVI gnode), Some (NVI hnode) =>
          cite_step_g alloc C cget cadd
                      (fun x' s' c' f' g' h' => capply_ite_g alloc lt C cget cadd n x' s' c' f' g' h')
                      x s c f fnode g gnode h hnode
        | Some NVT, Some (NVI _) =>
          if etag g then capply_bin_g alloc lt C cget cadd (S n) x s c CAnd (enot f) h
          else onot C (capply_bin_g alloc lt C cget cadd (S n) x s c CAnd (enot f) (enot h))
        | Some _, Some NVT =>
          if etag h then capply_bin_g alloc lt C cget cadd (S n) x s c CAnd f g
          else onot C (capply_bin_g alloc lt C cget cadd (S n) x s c CAnd f (enot g))
        | _, _ => None
        end
      end.
Proof. reflexivity. Qed.

Local Ltac pw3 phi psi theta :=
  let c0 := fresh "c0" in let Hc := fresh "Hc" in
  intros c0 Hc; cbv beta;
  repeat match goal with
         | Hx : forall c, bchoice c -> _ = _ |- _ => pose proof (Hx c0 Hc); clear Hx
         end;
  destruct (phi c0); destruct (psi c0); destruct (theta c0); simpl in *; congruence.

Theorem capply_ite_g_ok : forall fuel x s c f g h phi psi theta,
  BcOK s -> COK s c -> DenC s f phi -> DenC s g psi -> DenC s h theta ->
  nlevels s - Nat.min (Nat.min (rlevel s (eref f)) (rlevel s (eref g))) (rlevel s (eref h)) < fuel ->
  ROK s c (capply_ite_g alloc lt C cget cadd fuel x s c f g h)
      (fun c0 => if phi c0 then psi c0 else theta c0).
Proof.
  induction fuel as [|n IH]; intros x s c f g h phi psi theta B O Df Dg Dh Hfuel; [lia|].
  pose proof (denc_not s f phi Df) as Dnf. pose proof (denc_not s g psi Dg) as Dng.
  pose proof (denc_not s h theta Dh) as Dnh.
  assert (Hfg : nlevels s - Nat.min (rlevel s (eref f)) (rlevel s (eref g)) < S n) by lia.
  assert (Hfh : nlevels s - Nat.min (rlevel s (eref f)) (rlevel s (eref h)) < S n) by lia.
  pose proof (capply_bin_g_ok CXor (S n) x s c f g phi psi B O Df Dg Hfg) as Rxor.
  pose proof (capply_bin_g_ok CAnd (S n) x s c (enot f) (enot h) _ _ B O Dnf Dnh Hfh) as Rnfnh.
  pose proof (capply_bin_g_ok CAnd (S n) x s c (enot f) h _ _ B O Dnf Dh Hfh) as Rnfh.
  pose proof (capply_bin_g_ok CAnd (S n) x s c f g _ _ B O Df Dg Hfg) as Rfg.
  pose proof (capply_bin_g_ok CAnd (S n) x s c f (enot g) _ _ B O Df Dng Hfg) as Rfng.
  pose proof (cresult_ok_not C cget _ _ _ _ Rxor) as Rnxor.
  pose proof (cresult_ok_not C cget _ _ _ _ Rnfnh) as Rnnfnh.
  pose proof (cresult_ok_not C cget _ _ _ _ Rfng) as Rnfng.
  cbv beta in *.
  assert (Fsame : forall a b pa pb, DenC s a pa -> DenC s b pb -> eref a = eref b -> etag a = etag b ->
            forall c0, bchoice c0 -> pa c0 = pb c0).
  { intros a b pa pb Da Db Er Et. assert (a = b) by (apply edge_ext; assumption). subst b.
    apply (denc_unique s a pa pb Da Db). }
  assert (Fopp : forall a b pa pb, DenC s a pa -> DenC s b pb -> eref a = eref b -> etag a = negb (etag b) ->
            forall c0, bchoice c0 -> pa c0 = negb (pb c0)).
  { intros a b pa pb Da Db Er Et. assert (a = enot b) by (apply edge_ext; simpl; assumption). subst a.
    apply (denc_unique s (enot b) pa _ Da (denc_not s b pb Db)). }
  assert (Fterm : forall a pa, DenC s a pa -> cnode s a = Some NVT ->
            forall c0, bchoice c0 -> pa c0 = negb (etag a)).
  { intros a pa Da V. destruct (cnode_NVT s a V) as [t Et]. apply (denc_term s a t pa Da Et). }
  rewrite capply_ite_g_S.
  destruct (ref_eqb (eref g) (eref h)) eqn:Egh.
  { apply ref_eqb_true in Egh. destruct (Bool.eqb (etag g) (etag h)) eqn:Tgh.
    - apply bool_eqb_true in Tgh. pose proof (Fsame g h psi theta Dg Dh Egh Tgh) as U.
      apply cresult_ok_here; auto. apply (denc_ext s g psi); [exact Dg|]. clear Fsame Fopp Fterm. pw3 phi psi theta.
    - apply bool_eqb_false in Tgh. pose proof (Fopp g h psi theta Dg Dh Egh Tgh) as U.
      apply (cresult_ok_ext C cget s c _ _ _ Rnxor). clear Fsame Fopp Fterm. pw3 phi psi theta. }
  destruct (ref_eqb (eref f) (eref g)) eqn:Efg.
  { apply ref_eqb_true in Efg. destruct (Bool.eqb (etag f) (etag g)) eqn:Tfg.
    - apply bool_eqb_true in Tfg. pose proof (Fsame f g phi psi Df Dg Efg Tfg) as U.
      apply (cresult_ok_ext C cget s c _ _ _ Rnnfnh). clear Fsame Fopp Fterm. pw3 phi psi theta.
    - apply bool_eqb_false in Tfg. pose proof (Fopp f g phi psi Df Dg Efg Tfg) as U.
      apply (cresult_ok_ext C cget s c _ _ _ Rnfh). clear Fsame Fopp Fterm. pw3 phi psi theta. }
  destruct (ref_eqb (eref f) (eref h)) eqn:Efh.
  { apply ref_eqb_true in Efh. destruct (Bool.eqb (etag f) (etag h)) eqn:Tfh.
    - apply bool_eqb_true in Tfh. pose proof (Fsame f h phi theta Df Dh Efh Tfh) as U.
      apply (cresult_ok_ext C cget s c _ _ _ Rfg). clear Fsame Fopp Fterm. pw3 phi psi theta.
    - apply bool_eqb_false in Tfh. pose proof (Fopp f h phi theta Df Dh Efh Tfh) as U.
      apply (cresult_ok_ext C cget s c _ _ _ Rnfng). clear Fsame Fopp Fterm. pw3 phi psi theta. }
  clear Fsame Fopp.
  destruct (cnode_total s f (proj1 Df)) as [vf Vf].
  destruct (cnode_total s g (proj1 Dg)) as [vg Vg].
  destruct (cnode_total s h (proj1 Dh)) as [vh Vh].
  rewrite Vf. destruct vf as [fnd|].
  2:{ pose proof (Fterm f phi Df Vf) as U. clear Fterm.
      apply cresult_ok_here; auto. destruct (etag f) eqn:Tf.
      - apply (denc_ext s h theta); [exact Dh|]. pw3 phi psi theta.
      - apply (denc_ext s g psi); [exact Dg|]. pw3 phi psi theta. }
  rewrite Vg, Vh. destruct vg as [gnd|], vh as [hnd|].
  - clear Fterm.
    destruct (cnode_NVI s f fnd Vf) as [idf [Erf Ef]]. destruct (cnode_NVI s g gnd Vg) as [idg [Erg Eg]].
    destruct (cnode_NVI s h hnd Vh) as [idh [Erh Eh]].
    rewrite Erf, Erg, Erh, (rlevel_node s idf fnd Ef), (rlevel_node s idg gnd Eg),
            (rlevel_node s idh hnd Eh) in Hfuel.
    apply (cite_step_g_ok n _ IH x s c f idf fnd g idg gnd h idh hnd phi psi theta); auto.
  - pose proof (Fterm h theta Dh Vh) as U. clear Fterm. destruct (etag h) eqn:Th.
    + apply (cresult_ok_ext C cget s c _ _ _ Rfg). pw3 phi psi theta.
    + apply (cresult_ok_ext C cget s c _ _ _ Rnfng). pw3 phi psi theta.
  - pose proof (Fterm g psi Dg Vg) as U. clear Fterm. destruct (etag g) eqn:Tg.
    + apply (cresult_ok_ext C cget s c _ _ _ Rnfh). pw3 phi psi theta.
    + apply (cresult_ok_ext C cget s c _ _ _ Rnnfnh). pw3 phi psi theta.
  - pose proof (Fterm h theta Dh Vh) as U. pose proof (Fterm g psi Dg Vg) as U'. clear Fterm.
    destruct (etag h) eqn:Th.
    + apply (cresult_ok_ext C cget s c _ _ _ Rfg). pw3 phi psi theta.
    + apply (cresult_ok_ext C cget s c _ _ _ Rnfng). pw3 phi psi theta.
Qed.

End Gen.

(** ** The sequential configuration with [fresh_id] is the model of DD/ApplyBcdd.v *)

Lemma cmk_node_a_fresh : forall s lvl t e, cmk_node_a fresh_id s lvl t e = cmk_node s lvl t e.
Proof. reflexivity. Qed.

Section Seq.
Variable lt : edge -> edge -> bool.
Variable C : Type.
Variable cget : C -> N -> list edge -> option edge.
Variable cadd : C -> N -> list edge -> edge -> C.

Lemma cjoin2_seq : forall runT runE runT' runE' s c lvl code args,
  (forall s' c', runT SSeq s' c' = runT' s' c') -> (forall s' c', runE SSeq s' c' = runE' s' c') ->
  cjoin2 fresh_id C cadd SSeq runT runE s c lvl code args =
  match runT' s c with
  | None => None
  | Some (s1, c1, t) =>
    match runE' s1 c1 with
    | None => None
    | Some (s2, c2, e) =>
      let '(s3, h) := cmk_node s2 lvl t e in
      Some (s3, cadd c2 code args h, h)
    end
  end.
Proof.
  intros runT runE runT' runE' s c lvl code args HT HE. unfold cjoin2, cfork2. simpl.
  rewrite HT. destruct (runT' s c) as [[[s1 c1] t]|]; [|reflexivity].
  rewrite HE. destruct (runE' s1 c1) as [[[s2 c2] e]|]; reflexivity.
Qed.

Lemma cbin_step_g_seq : forall rec rec', (forall s c f g, rec SSeq s c f g = rec' s c f g) ->
  forall s c op f fn g gn,
  cbin_step_g fresh_id C cget cadd rec SSeq s c op f fn g gn = cbin_step C cget cadd rec' s c op f fn g gn.
Proof.
  intros rec rec' Hr s c op f fn g gn. unfold cbin_step_g, cbin_step.
  destruct (cget c (cop_code op) [f; g]); [reflexivity|]. cbv zeta.
  destruct (ccof2 f fn _) as [[ft fe]|]; [|reflexivity].
  destruct (ccof2 g gn _) as [[gt' ge]|]; [|reflexivity].
  apply (cjoin2_seq _ _ (fun s' c' => rec' s' c' ft gt') (fun s' c' => rec' s' c' fe ge)); intros; apply Hr.
Qed.

Theorem capply_bin_g_seq : forall fuel s c op f g,
  capply_bin_g fresh_id lt C cget cadd fuel SSeq s c op f g = capply_bin lt C cget cadd fuel s c op f g.
Proof.
  induction fuel as [|n IH]; intros s c op f g; [reflexivity|].
  rewrite capply_bin_g_S, capply_bin_S. destruct (cterminal s op f g) as [r|fn gn|]; try reflexivity.
  destruct (lt f g); apply cbin_step_g_seq; intros; apply IH.
Qed.

Theorem capply_op_g_seq : forall fuel s c o f g,
  capply_op_g fresh_id lt C cget cadd fuel SSeq s c o f g = capply_op lt C cget cadd fuel s c o f g.
Proof.
  intros fuel s c o f g. destruct o; unfold capply_op_g, capply_op; rewrite capply_bin_g_seq; reflexivity.
Qed.

Lemma cite_step_g_seq : forall rec rec', (forall s c f g h, rec SSeq s c f g h = rec' s c f g h) ->
  forall s c f fn g gn h hn,
  cite_step_g fresh_id C cget cadd rec SSeq s c f fn g gn h hn = cite_step C cget cadd rec' s c f fn g gn h hn.
Proof.
  intros rec rec' Hr s c f fn g gn h hn. unfold cite_step_g, cite_step.
  destruct (cget c ccode_ite [f; g; h]); [reflexivity|]. cbv zeta.
  destruct (ccof2 f fn _) as [[ft fe]|]; [|reflexivity].
  destruct (ccof2 g gn _) as [[gt' ge]|]; [|reflexivity].
  destruct (ccof2 h hn _) as [[ht he]|]; [|reflexivity].
  apply (cjoin2_seq _ _ (fun s' c' => rec' s' c' ft gt' ht) (fun s' c' => rec' s' c' fe ge he)); intros; apply Hr.
Qed.

Theorem capply_ite_g_seq : forall fuel s c f g h,
  capply_ite_g fresh_id lt C cget cadd fuel SSeq s c f g h = capply_ite lt C cget cadd fuel s c f g h.
Proof.
  induction fuel as [|n IH]; intros s c f g h; [reflexivity|].
  rewrite capply_ite_g_S, (capply_ite_S lt C cget cadd). rewrite !capply_bin_g_seq.
  destruct (ref_eqb (eref g) (eref h)); [reflexivity|].
  destruct (ref_eqb (eref f) (eref g)); [reflexivity|].
  destruct (ref_eqb (eref f) (eref h)); [reflexivity|].
  destruct (cnode s f) as [[fn|]|]; try reflexivity.
  destruct (cnode s g) as [[gn|]|], (cnode s h) as [[hn|]|]; try reflexivity.
  apply cite_step_g_seq. intros; apply IH.
Qed.

Lemma cmk_var_a_fresh : forall s v neg, cmk_var_a fresh_id s v neg = cmk_var s v neg.
Proof. reflexivity. Qed.

End Seq.
