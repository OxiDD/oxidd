(** * C20 (a): apply cache enabled / disabled / any other cache - identical results

    Two runs of the same operation on the same table, with the same node store
    and the same schedule, but with two arbitrary (possibly different) lossy
    cache implementations holding arbitrary correct contents, and two
    arbitrary operand orders: the resulting TABLES are identical and the
    returned EDGES are identical ([apply_*_g_agree]).  Instances: the
    direct-mapped cache of DD/Cache.v (feature [apply-cache-direct-mapped])
    against [NoApplyCache] ([unit], [nc_get], [nc_add]). *)

From Coq Require Import List NArith PArith Bool Arith Lia FMapPositive.
From OxiVerif Require Import DD.Table DD.TableProofs DD.Canon DD.Sem DD.Build DD.BuildProofs
  DD.Apply DD.ApplyProofs DD.ConfigApply DD.ConfigProofs.
Import ListNotations.

(** the operand order is consulted for two inner operands only, and there it
    decides the order of the two cache-key operands, nothing else *)
Lemma tb_gt : forall gt1 gt2 s op f g vf vg,
  tb gt1 s op f g vf vg = tb gt2 s op f g vf vg \/
  exists a b a' b', tb gt1 s op f g vf vg = TBin op a b /\ tb gt2 s op f g vf vg = TBin op a' b'.
Proof.
  intros gt1 gt2 s op f g vf vg.
  destruct op, vf as [|bf], vg as [|bg]; cbn [tb]; try (left; reflexivity);
    (destruct (ref_eqb f g); [left; reflexivity|]); right;
    destruct (gt1 f g), (gt2 f g); eauto 6.
Qed.

Lemma terminal_bin_gt : forall gt1 gt2 s op f g,
  match terminal_bin gt1 s op f g, terminal_bin gt2 s op f g with
  | TDone a, TDone b => a = b
  | TNot a, TNot b => a = b
  | TBin o _ _, TBin o' _ _ => o = o'
  | TFail, TFail => True
  | _, _ => False
  end.
Proof.
  intros gt1 gt2 s op f g. unfold terminal_bin.
  destruct (view s f) as [vf|]; [|exact I]. destruct (view s g) as [vg|]; [|exact I].
  destruct (tb_gt gt1 gt2 s op f g vf vg) as [->|(a & b & a' & b' & -> & ->)]; [|reflexivity].
  destruct (tb gt2 s op f g vf vg); auto.
Qed.

Section CacheExact.
Variable alloc : snap -> positive.
Hypothesis Halloc : alloc_ok alloc.
Variables gt1 gt2 : ref -> ref -> bool.
Variables C1 C2 : Type.
Variable cget1 : C1 -> N -> list ref -> option ref.
Variable cadd1 : C1 -> N -> list ref -> ref -> C1.
Variable cget2 : C2 -> N -> list ref -> option ref.
Variable cadd2 : C2 -> N -> list ref -> ref -> C2.
Hypothesis L1 : lossy cget1 cadd1.
Hypothesis L2 : lossy cget2 cadd2.

(** both runs succeed, with the same table and the same reference (the caches
    may differ) *)
Definition same_out (r1 : option (snap * C1 * ref)) (r2 : option (snap * C2 * ref)) : Prop :=
  match r1, r2 with
  | Some (s1, _, a), Some (s2, _, b) => s1 = s2 /\ a = b
  | _, _ => False
  end.

Lemma unchanged_agree_l : forall s c1 c2 res2 Phi c1' r1,
  result_ok C1 cget1 s c1 (Some (s, c1', r1)) Phi -> result_ok C2 cget2 s c2 res2 Phi ->
  same_out (Some (s, c1', r1)) res2.
Proof.
  intros s c1 c2 res2 Phi c1' r1 [sa [ca [ra [Ea [_ [_ [_ [Da _]]]]]]]]
         [sb [cb [rb [Eb [_ [_ [_ [_ Sb]]]]]]]].
  inversion Ea; subst sa ca ra. rewrite Eb. destruct (Sb r1 Da) as [-> ->]. simpl. auto.
Qed.

Lemma unchanged_agree_r : forall s c1 c2 res1 Phi c2' r2,
  result_ok C1 cget1 s c1 res1 Phi -> result_ok C2 cget2 s c2 (Some (s, c2', r2)) Phi ->
  same_out res1 (Some (s, c2', r2)).
Proof.
  intros s c1 c2 res1 Phi c2' r2 [sa [ca [ra [Ea [_ [_ [_ [_ Sa]]]]]]]]
         [sb [cb [rb [Eb [_ [_ [_ [Db _]]]]]]]].
  inversion Eb; subst sb cb rb. rewrite Ea. destruct (Sa r2 Db) as [-> ->]. simpl. auto.
Qed.

(** two closures that agree in every later state *)
Definition runs_agree (s : snap)
  (run1 : sched -> snap -> C1 -> option (snap * C1 * ref))
  (run2 : sched -> snap -> C2 -> option (snap * C2 * ref)) : Prop :=
  forall x s' a b, BddOK s' -> extends s s' -> CacheOK cget1 s' a -> CacheOK cget2 s' b ->
    same_out (run1 x s' a) (run2 x s' b).

Lemma fork2_agree : forall x runT1 runE1 runT2 runE2 s c1 c2 P0 P1,
  BddOK s -> CacheOK cget1 s c1 -> CacheOK cget2 s c2 ->
  run_ok C1 cget1 s runT1 P0 -> run_ok C2 cget2 s runT2 P0 ->
  run_ok C1 cget1 s runE1 P1 -> run_ok C2 cget2 s runE2 P1 ->
  runs_agree s runT1 runT2 -> runs_agree s runE1 runE2 ->
  match fork2 C1 x runT1 runE1 s c1, fork2 C2 x runT2 runE2 s c2 with
  | Some (sa, _, ta, ea), Some (sb, _, tb, eb) => sa = sb /\ ta = tb /\ ea = eb
  | _, _ => False
  end.
Proof.
  exact (gfork2_agree ref _ BddOK Den C1 C2 (CacheOK cget1) (CacheOK cget2)
           (cacheok_extends C1 cget1) (cacheok_extends C2 cget2)).
Qed.

Lemma join2_agree : forall x runT1 runE1 runT2 runE2 s c1 c2 P0 P1 lvl code1 args1 code2 args2,
  BddOK s -> CacheOK cget1 s c1 -> CacheOK cget2 s c2 ->
  run_ok C1 cget1 s runT1 P0 -> run_ok C2 cget2 s runT2 P0 ->
  run_ok C1 cget1 s runE1 P1 -> run_ok C2 cget2 s runE2 P1 ->
  runs_agree s runT1 runT2 -> runs_agree s runE1 runE2 ->
  same_out (join2 alloc C1 cadd1 x runT1 runE1 s c1 lvl code1 args1)
           (join2 alloc C2 cadd2 x runT2 runE2 s c2 lvl code2 args2).
Proof.
  intros x runT1 runE1 runT2 runE2 s c1 c2 P0 P1 lvl code1 args1 code2 args2
         B O1 O2 HT1 HT2 HE1 HE2 AT AE.
  pose proof (fork2_agree x runT1 runE1 runT2 runE2 s c1 c2 P0 P1 B O1 O2 HT1 HT2 HE1 HE2 AT AE) as A.
  unfold join2.
  destruct (fork2 C1 x runT1 runE1 s c1) as [[[[sa ca] ta] ea]|]; [|contradiction].
  destruct (fork2 C2 x runT2 runE2 s c2) as [[[[sb cb] tb] eb]|]; [|contradiction].
  destruct A as [<- [<- <-]].
  destruct (mk_node_a alloc sa lvl [E ta; E ea]) as [s3 h]. simpl. auto.
Qed.

Local Ltac dead R := let EE := fresh "EE" in destruct R as [? [? [? [EE _]]]]; discriminate EE.

Theorem apply_not_g_agree : forall fuel x s c1 c2 f phi,
  BddOK s -> CacheOK cget1 s c1 -> CacheOK cget2 s c2 -> Den s f phi ->
  nlevels s - rlevel s f < fuel ->
  same_out (apply_not_g alloc C1 cget1 cadd1 fuel x s c1 f)
           (apply_not_g alloc C2 cget2 cadd2 fuel x s c2 f).
Proof.
  induction fuel as [|n IH]; intros x s c1 c2 f phi B O1 O2 D Hf; [lia|].
  pose proof (apply_not_g_ok alloc Halloc C1 cget1 cadd1 L1 (S n) x s c1 f phi B O1 D Hf) as R1.
  pose proof (apply_not_g_ok alloc Halloc C2 cget2 cadd2 L2 (S n) x s c2 f phi B O2 D Hf) as R2.
  pose proof (bo_wf s B) as H.
  rewrite (apply_not_g_S alloc C1) in *. rewrite (apply_not_g_S alloc C2) in *. destruct f as [t|id].
  - destruct (view s (RT t)) as [[|b]|]; try (dead R1).
    destruct (term_of s (negb b)) as [t'|]; try (dead R1).
    eapply unchanged_agree_l; eauto.
  - destruct (find_node s id) as [nd|] eqn:E; [|dead R1].
    rewrite (rlevel_node s id nd E) in Hf. pose proof (wf_level s H id nd E) as Hlv.
    destruct (cget1 c1 code_not [RN id]) eqn:G1; [eapply unchanged_agree_l; eauto|].
    destruct (cget2 c2 code_not [RN id]) eqn:G2; [eapply unchanged_agree_r; eauto|].
    destruct (bdd_children s id nd B E) as [a [b Ech]]. rewrite Ech in *.
    assert (Ha : nth_error (nchildren nd) 0 = Some a) by (rewrite Ech; reflexivity).
    assert (Hb : nth_error (nchildren nd) 1 = Some b) by (rewrite Ech; reflexivity).
    pose proof (den_child s id nd 0 a phi B D E Ha) as Da.
    pose proof (den_child s id nd 1 b phi B D E Hb) as Db.
    destruct (child_nth s H id nd 0 a E Ha) as [Oa La].
    destruct (child_nth s H id nd 1 b E Hb) as [Ob Lb].
    assert (Fa : forall s', extends s s' -> nlevels s' - rlevel s' (eref a) < n)
      by (intros s' X'; rewrite (ext_nlevels _ _ X'), (ext_rlevel _ _ _ X' Oa); lia).
    assert (Fb : forall s', extends s s' -> nlevels s' - rlevel s' (eref b) < n)
      by (intros s' X'; rewrite (ext_nlevels _ _ X'), (ext_rlevel _ _ _ X' Ob); lia).
    apply (join2_agree x _ _ _ _ s c1 c2
             (fun c0 => negb (cofn phi (nlevel nd) 0 c0)) (fun c0 => negb (cofn phi (nlevel nd) 1 c0))); auto.
    + intros x' s' c' B' X' O'. apply (apply_not_g_ok alloc Halloc C1 cget1 cadd1 L1); auto.
      apply (den_extends s s' _ _ B X' Da).
    + intros x' s' c' B' X' O'. apply (apply_not_g_ok alloc Halloc C2 cget2 cadd2 L2); auto.
      apply (den_extends s s' _ _ B X' Da).
    + intros x' s' c' B' X' O'. apply (apply_not_g_ok alloc Halloc C1 cget1 cadd1 L1); auto.
      apply (den_extends s s' _ _ B X' Db).
    + intros x' s' c' B' X' O'. apply (apply_not_g_ok alloc Halloc C2 cget2 cadd2 L2); auto.
      apply (den_extends s s' _ _ B X' Db).
    + intros x' s' a' b' B' X' Oa' Ob'.
      apply (IH x' s' a' b' (eref a) _ B' Oa' Ob' (den_extends s s' _ _ B X' Da) (Fa s' X')).
    + intros x' s' a' b' B' X' Oa' Ob'.
      apply (IH x' s' a' b' (eref b) _ B' Oa' Ob' (den_extends s s' _ _ B X' Db) (Fb s' X')).
Qed.

Theorem apply_bin_g_agree : forall op fuel x s c1 c2 f g phi psi,
  BddOK s -> CacheOK cget1 s c1 -> CacheOK cget2 s c2 -> Den s f phi -> Den s g psi ->
  nlevels s - Nat.min (rlevel s f) (rlevel s g) < fuel ->
  same_out (apply_bin_g alloc gt1 C1 cget1 cadd1 fuel x s c1 op f g)
           (apply_bin_g alloc gt2 C2 cget2 cadd2 fuel x s c2 op f g).
Proof.
  intros op. induction fuel as [|n IH]; intros x s c1 c2 f g phi psi B O1 O2 Df Dg Hfuel; [lia|].
  pose proof (apply_bin_g_ok alloc Halloc gt1 C1 cget1 cadd1 L1 op (S n) x s c1 f g phi psi B O1 Df Dg Hfuel) as R1.
  pose proof (apply_bin_g_ok alloc Halloc gt2 C2 cget2 cadd2 L2 op (S n) x s c2 f g phi psi B O2 Df Dg Hfuel) as R2.
  pose proof (bo_wf s B) as H.
  rewrite (apply_bin_g_S alloc gt1 C1) in *. rewrite (apply_bin_g_S alloc gt2 C2) in *.
  pose proof (terminal_bin_gt gt1 gt2 s op f g) as TG.
  pose proof (terminal_bin_sound gt1 s op f g phi psi B Df Dg) as T.
  destruct (terminal_bin gt1 s op f g) as [r|r|o a b|] eqn:E1;
    destruct (terminal_bin gt2 s op f g) as [r'|r'|o' a' b'|] eqn:E2; try contradiction.
  - eapply unchanged_agree_l; eauto.
  - subst r'. destruct T as [Hr [rho [Dr Hrho]]].
    assert (Hfr : nlevels s - rlevel s r < S n) by (destruct Hr as [->| ->]; lia).
    apply (apply_not_g_agree (S n) x s c1 c2 r rho B O1 O2 Dr Hfr).
  - subst o'. destruct T as [-> [[idf ->] [[idg ->] _]]].
    destruct (proj1 Df) as [fnd Ef]. destruct (proj1 Dg) as [gnd Eg].
    rewrite (rlevel_node s idf fnd Ef), (rlevel_node s idg gnd Eg) in Hfuel.
    pose proof (wf_level s H idf fnd Ef) as Hlf. pose proof (wf_level s H idg gnd Eg) as Hlg.
    destruct (cget1 c1 (op_code op) [a; b]) eqn:G1; [eapply unchanged_agree_l; eauto|].
    destruct (cget2 c2 (op_code op) [a'; b']) eqn:G2; [eapply unchanged_agree_r; eauto|].
    clear R1 R2. simpl inner. rewrite Ef, Eg.
    rewrite (wf_stored s H idf fnd Ef), (wf_stored s H idg gnd Eg).
    set (lvl := Nat.min (nlevel fnd) (nlevel gnd)) in *. cbv zeta.
    destruct (cof2_ok s idf fnd phi lvl B Df Ef ltac:(lia)) as [ft [fe [Ecf [Dft [Dfe [Lft Lfe]]]]]].
    destruct (cof2_ok s idg gnd psi lvl B Dg Eg ltac:(lia)) as [gt' [ge [Ecg [Dgt [Dge [Lgt Lge]]]]]].
    rewrite Ecf, Ecg.
    assert (Ft : forall s', extends s s' -> nlevels s' - Nat.min (rlevel s' ft) (rlevel s' gt') < n).
    { intros s' X'. rewrite (ext_nlevels _ _ X'), (ext_rlevel _ _ _ X' (proj1 Dft)),
        (ext_rlevel _ _ _ X' (proj1 Dgt)). lia. }
    assert (Fe : forall s', extends s s' -> nlevels s' - Nat.min (rlevel s' fe) (rlevel s' ge) < n).
    { intros s' X'. rewrite (ext_nlevels _ _ X'), (ext_rlevel _ _ _ X' (proj1 Dfe)),
        (ext_rlevel _ _ _ X' (proj1 Dge)). lia. }
    apply (join2_agree x _ _ _ _ s c1 c2
             (fun c0 => eval_bop op (cofn phi lvl 0 c0) (cofn psi lvl 0 c0))
             (fun c0 => eval_bop op (cofn phi lvl 1 c0) (cofn psi lvl 1 c0))); auto.
    + intros x' s' c' B' X' O'. apply (apply_bin_g_ok alloc Halloc gt1 C1 cget1 cadd1 L1); auto.
      * apply (den_extends s s' _ _ B X' Dft). * apply (den_extends s s' _ _ B X' Dgt).
    + intros x' s' c' B' X' O'. apply (apply_bin_g_ok alloc Halloc gt2 C2 cget2 cadd2 L2); auto.
      * apply (den_extends s s' _ _ B X' Dft). * apply (den_extends s s' _ _ B X' Dgt).
    + intros x' s' c' B' X' O'. apply (apply_bin_g_ok alloc Halloc gt1 C1 cget1 cadd1 L1); auto.
      * apply (den_extends s s' _ _ B X' Dfe). * apply (den_extends s s' _ _ B X' Dge).
    + intros x' s' c' B' X' O'. apply (apply_bin_g_ok alloc Halloc gt2 C2 cget2 cadd2 L2); auto.
      * apply (den_extends s s' _ _ B X' Dfe). * apply (den_extends s s' _ _ B X' Dge).
    + intros x' s' a0 b0 B' X' Oa' Ob'.
      apply (IH x' s' a0 b0 ft gt' _ _ B' Oa' Ob' (den_extends s s' _ _ B X' Dft)
                (den_extends s s' _ _ B X' Dgt) (Ft s' X')).
    + intros x' s' a0 b0 B' X' Oa' Ob'.
      apply (IH x' s' a0 b0 fe ge _ _ B' Oa' Ob' (den_extends s s' _ _ B X' Dfe)
                (den_extends s s' _ _ B X' Dge) (Fe s' X')).
Qed.

Theorem apply_ite_g_agree : forall fuel x s c1 c2 f g h phi psi theta,
  BddOK s -> CacheOK cget1 s c1 -> CacheOK cget2 s c2 ->
  Den s f phi -> Den s g psi -> Den s h theta ->
  nlevels s - Nat.min (Nat.min (rlevel s f) (rlevel s g)) (rlevel s h) < fuel ->
  same_out (apply_ite_g alloc gt1 C1 cget1 cadd1 fuel x s c1 f g h)
           (apply_ite_g alloc gt2 C2 cget2 cadd2 fuel x s c2 f g h).
Proof.
  induction fuel as [|n IH]; intros x s c1 c2 f g h phi psi theta B O1 O2 Df Dg Dh Hfuel; [lia|].
  pose proof (apply_ite_g_ok alloc Halloc gt1 C1 cget1 cadd1 L1 (S n) x s c1 f g h phi psi theta
                B O1 Df Dg Dh Hfuel) as R1.
  pose proof (apply_ite_g_ok alloc Halloc gt2 C2 cget2 cadd2 L2 (S n) x s c2 f g h phi psi theta
                B O2 Df Dg Dh Hfuel) as R2.
  pose proof (bo_wf s B) as H.
  rewrite (apply_ite_g_S alloc gt1 C1) in *. rewrite (apply_ite_g_S alloc gt2 C2) in *.
  assert (ABg : forall op, same_out (apply_bin_g alloc gt1 C1 cget1 cadd1 (S n) x s c1 op f g)
                                    (apply_bin_g alloc gt2 C2 cget2 cadd2 (S n) x s c2 op f g))
    by (intros op; apply (apply_bin_g_agree op (S n) x s c1 c2 f g phi psi); auto; lia).
  assert (ABh : forall op, same_out (apply_bin_g alloc gt1 C1 cget1 cadd1 (S n) x s c1 op f h)
                                    (apply_bin_g alloc gt2 C2 cget2 cadd2 (S n) x s c2 op f h))
    by (intros op; apply (apply_bin_g_agree op (S n) x s c1 c2 f h phi theta); auto; lia).
  destruct (ref_eqb g h); [eapply unchanged_agree_l; eauto|].
  destruct (ref_eqb f g); [apply ABh|]. destruct (ref_eqb f h); [apply ABg|].
  destruct (view s f) as [[|bf]|] eqn:Vf; [|eapply unchanged_agree_l; eauto|dead R1].
  destruct (view s g) as [[|bg]|] eqn:Vg; [| |dead R1].
  2:{
      destruct (view s h) as [[|bh]|]; [destruct bg; apply ABh | | destruct bg; dead R1].
      destruct bg; [eapply unchanged_agree_l; eauto|].
      apply (apply_not_g_agree (S n) x s c1 c2 f phi); auto; lia. }
  destruct (view s h) as [[|bh]|] eqn:Vh; [|destruct bh; apply ABg|dead R1].
  clear ABg ABh.
  destruct (view_VI s f Vf) as [idf ->]. destruct (view_VI s g Vg) as [idg ->].
  destruct (view_VI s h Vh) as [idh ->].
  destruct (proj1 Df) as [fnd Ef]. destruct (proj1 Dg) as [gnd Eg]. destruct (proj1 Dh) as [hnd Eh].
  rewrite (rlevel_node s idf fnd Ef), (rlevel_node s idg gnd Eg), (rlevel_node s idh hnd Eh) in Hfuel.
  pose proof (wf_level s H idf fnd Ef) as Hlf. pose proof (wf_level s H idg gnd Eg) as Hlg.
  pose proof (wf_level s H idh hnd Eh) as Hlh.
  destruct (cget1 c1 code_ite [RN idf; RN idg; RN idh]) eqn:G1; [eapply unchanged_agree_l; eauto|].
  destruct (cget2 c2 code_ite [RN idf; RN idg; RN idh]) eqn:G2; [eapply unchanged_agree_r; eauto|].
  clear R1 R2. simpl inner. rewrite Ef, Eg, Eh.
  rewrite (wf_stored s H idf fnd Ef), (wf_stored s H idg gnd Eg), (wf_stored s H idh hnd Eh).
  set (lvl := Nat.min (Nat.min (nlevel fnd) (nlevel gnd)) (nlevel hnd)) in *. cbv zeta.
  destruct (cof2_ok s idf fnd phi lvl B Df Ef ltac:(lia)) as [ft [fe [Ecf [Dft [Dfe [Lft Lfe]]]]]].
  destruct (cof2_ok s idg gnd psi lvl B Dg Eg ltac:(lia)) as [gt' [ge [Ecg [Dgt [Dge [Lgt Lge]]]]]].
  destruct (cof2_ok s idh hnd theta lvl B Dh Eh ltac:(lia)) as [ht [he [Ech [Dht [Dhe [Lht Lhe]]]]]].
  rewrite Ecf, Ecg, Ech.
  assert (Ft : forall s', extends s s' ->
            nlevels s' - Nat.min (Nat.min (rlevel s' ft) (rlevel s' gt')) (rlevel s' ht) < n).
  { intros s' X'. rewrite (ext_nlevels _ _ X'), (ext_rlevel _ _ _ X' (proj1 Dft)),
      (ext_rlevel _ _ _ X' (proj1 Dgt)), (ext_rlevel _ _ _ X' (proj1 Dht)). lia. }
  assert (Fe : forall s', extends s s' ->
            nlevels s' - Nat.min (Nat.min (rlevel s' fe) (rlevel s' ge)) (rlevel s' he) < n).
  { intros s' X'. rewrite (ext_nlevels _ _ X'), (ext_rlevel _ _ _ X' (proj1 Dfe)),
      (ext_rlevel _ _ _ X' (proj1 Dge)), (ext_rlevel _ _ _ X' (proj1 Dhe)). lia. }
  apply (join2_agree x _ _ _ _ s c1 c2
           (fun c0 => if cofn phi lvl 0 c0 then cofn psi lvl 0 c0 else cofn theta lvl 0 c0)
           (fun c0 => if cofn phi lvl 1 c0 then cofn psi lvl 1 c0 else cofn theta lvl 1 c0)); auto.
  - intros x' s' c' B' X' O'. apply (apply_ite_g_ok alloc Halloc gt1 C1 cget1 cadd1 L1); auto.
    + apply (den_extends s s' _ _ B X' Dft). + apply (den_extends s s' _ _ B X' Dgt).
    + apply (den_extends s s' _ _ B X' Dht).
  - intros x' s' c' B' X' O'. apply (apply_ite_g_ok alloc Halloc gt2 C2 cget2 cadd2 L2); auto.
    + apply (den_extends s s' _ _ B X' Dft). + apply (den_extends s s' _ _ B X' Dgt).
    + apply (den_extends s s' _ _ B X' Dht).
  - intros x' s' c' B' X' O'. apply (apply_ite_g_ok alloc Halloc gt1 C1 cget1 cadd1 L1); auto.
    + apply (den_extends s s' _ _ B X' Dfe). + apply (den_extends s s' _ _ B X' Dge).
    + apply (den_extends s s' _ _ B X' Dhe).
  - intros x' s' c' B' X' O'. apply (apply_ite_g_ok alloc Halloc gt2 C2 cget2 cadd2 L2); auto.
    + apply (den_extends s s' _ _ B X' Dfe). + apply (den_extends s s' _ _ B X' Dge).
    + apply (den_extends s s' _ _ B X' Dhe).
  - intros x' s' a0 b0 B' X' Oa' Ob'.
    apply (IH x' s' a0 b0 ft gt' ht _ _ _ B' Oa' Ob' (den_extends s s' _ _ B X' Dft)
              (den_extends s s' _ _ B X' Dgt) (den_extends s s' _ _ B X' Dht) (Ft s' X')).
  - intros x' s' a0 b0 B' X' Oa' Ob'.
    apply (IH x' s' a0 b0 fe ge he _ _ _ B' Oa' Ob' (den_extends s s' _ _ B X' Dfe)
              (den_extends s s' _ _ B X' Dge) (den_extends s s' _ _ B X' Dhe) (Fe s' X')).
Qed.

(** the same statements for arbitrary existing operands and the standard fuel *)

Theorem apply_not_g_cache_exact : forall fuel x s c1 c2 f,
  BddOK s -> CacheOK cget1 s c1 -> CacheOK cget2 s c2 -> ref_ok s f -> FUEL s <= fuel ->
  same_out (apply_not_g alloc C1 cget1 cadd1 fuel x s c1 f)
           (apply_not_g alloc C2 cget2 cadd2 fuel x s c2 f).
Proof.
  intros fuel x s c1 c2 f B O1 O2 Hf F. destruct (den_exists s f B Hf) as [phi D].
  unfold FUEL in F. pose proof (rlevel_le s (bo_wf s B) f).
  apply (apply_not_g_agree fuel x s c1 c2 f phi B O1 O2 D). lia.
Qed.

Theorem apply_bin_g_cache_exact : forall op fuel x s c1 c2 f g,
  BddOK s -> CacheOK cget1 s c1 -> CacheOK cget2 s c2 -> ref_ok s f -> ref_ok s g -> FUEL s <= fuel ->
  same_out (apply_bin_g alloc gt1 C1 cget1 cadd1 fuel x s c1 op f g)
           (apply_bin_g alloc gt2 C2 cget2 cadd2 fuel x s c2 op f g).
Proof.
  intros op fuel x s c1 c2 f g B O1 O2 Hf Hg F.
  destruct (den_exists s f B Hf) as [phi Df]. destruct (den_exists s g B Hg) as [psi Dg].
  unfold FUEL in F. apply (apply_bin_g_agree op fuel x s c1 c2 f g phi psi B O1 O2 Df Dg). lia.
Qed.

Theorem apply_ite_g_cache_exact : forall fuel x s c1 c2 f g h,
  BddOK s -> CacheOK cget1 s c1 -> CacheOK cget2 s c2 -> ref_ok s f -> ref_ok s g -> ref_ok s h ->
  FUEL s <= fuel ->
  same_out (apply_ite_g alloc gt1 C1 cget1 cadd1 fuel x s c1 f g h)
           (apply_ite_g alloc gt2 C2 cget2 cadd2 fuel x s c2 f g h).
Proof.
  intros fuel x s c1 c2 f g h B O1 O2 Hf Hg Hh F.
  destruct (den_exists s f B Hf) as [phi Df]. destruct (den_exists s g B Hg) as [psi Dg].
  destruct (den_exists s h B Hh) as [theta Dh]. unfold FUEL in F.
  apply (apply_ite_g_agree fuel x s c1 c2 f g h phi psi theta B O1 O2 Df Dg Dh). lia.
Qed.

End CacheExact.
