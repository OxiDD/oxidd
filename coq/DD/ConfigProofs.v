(** * Correctness of the configuration-generic apply algorithms (DD/ConfigApply.v)

    - [alloc_ok]: the only thing assumed about a node store;
    - [get_or_insert_a_wf], [mk_node_a_wf], [node_step_a], [mk_node_stable_a]:
      node construction at an arbitrary free id;
    - [fork2_ok], [join2_ok]: one fork/join step under an arbitrary schedule;
    - [apply_not_g_ok], [apply_bin_g_ok], [apply_ite_g_ok]: for every
      allocator, operand order, lossy cache and schedule the algorithms return
      a well-formed extension of the table, a correct cache and a reference
      denoting the connective of the operands' functions; if that function
      already has a reference, exactly that reference is returned and the table
      is unchanged ([result_ok] of DD/ApplyProofs.v);
    - [apply_*_g_seq]: the instance [fresh_id] / [SSeq] is DD/Apply.v. *)

From Coq Require Import List NArith PArith Bool Arith Lia FMapPositive.
From OxiVerif Require Import DD.Table DD.TableProofs DD.Canon DD.Sem DD.Build DD.BuildProofs
  DD.Apply DD.ApplyProofs DD.ConfigApply.
Import ListNotations.

(** ** Node stores *)

(** a node store never hands out the id of a stored node *)
Definition alloc_ok (alloc : snap -> positive) : Prop :=
  forall s, find_node s (alloc s) = None.

Lemma fresh_id_alloc_ok : alloc_ok fresh_id.
Proof. exact fresh_id_free. Qed.

(** ** Inserting a node under an arbitrary free id (cf. Section Insert of DD/BuildProofs.v) *)

Section InsertAt.
Variable s : snap.
Variable lvl : nat.
Variable ch : list edge.
Variable id : positive.
Hypothesis H : WF s.
Hypothesis Hkind : kary (s_kind s).
Hypothesis Hlvl : lvl < nlevels s.
Hypothesis Hch : children_ok s lvl ch.
Hypothesis Hne : all_equal ch = false.
Hypothesis Hnodup : find_dup s lvl ch = None.
Hypothesis Hfree : find_node s id = None.

Let nd0 := mkNode lvl ch lvl 0%N.
Let s' := set_nodes s (PositiveMap.add id nd0 (s_nodes s)).

Lemma insa_find : forall i nd, find_node s' i = Some nd ->
  (i = id /\ nd = nd0) \/ (i <> id /\ find_node s i = Some nd).
Proof.
  intros i nd. unfold find_node, s'. simpl.
  destruct (Pos.eq_dec i id) as [->|Hn].
  - rewrite PositiveMap.gss. intros E. inversion E. auto.
  - rewrite PositiveMap.gso by exact Hn. auto.
Qed.

Lemma insa_find_new : find_node s' id = Some nd0.
Proof. unfold find_node, s'. simpl. apply PositiveMap.gss. Qed.

Lemma insa_extends : extends s s'.
Proof.
  constructor; try reflexivity.
  intros i nd E. unfold find_node, s'. simpl.
  rewrite PositiveMap.gso; [exact E|].
  intros ->. fold (find_node s id) in E. rewrite Hfree in E. discriminate.
Qed.

Lemma insa_not_all_same : ~ all_same ch.
Proof. intros A. apply all_equal_spec in A. congruence. Qed.

Lemma insa_wf : WF s'.
Proof.
  pose proof insa_extends as X.
  destruct Hch as [Hlen Hce].
  assert (Hok : forall i nd, find_node s' i = Some nd -> node_ok s' nd).
  { intros i nd E. destruct (insa_find i nd E) as [[-> ->]|[Hn E']].
    - unfold node_ok, nd0. simpl.
      split; [exact Hlen|]. split; [reflexivity|]. split; [exact Hlvl|].
      split; [|split].
      + intros e He. destruct (Hce e He) as [A [B _]].
        split; [apply (ext_ref_ok _ _ _ X A) | rewrite (ext_rlevel _ _ _ X A); exact B].
      + apply (reduced_kary_iff s' ch Hkind). exact insa_not_all_same.
      + intros _ e He. apply (Hce e He).
    - unfold node_ok.
      split; [apply (wf_arity s H i nd E')|]. split; [apply (wf_stored s H i nd E')|].
      split; [apply (wf_level s H i nd E')|]. split; [|split].
      + intros e He. destruct (wf_child s H i nd e E' He) as [A B].
        split; [apply (ext_ref_ok _ _ _ X A) | rewrite (ext_rlevel _ _ _ X A); exact B].
      + apply (reduced_kary_iff s' _ Hkind). apply (reduced_kary_iff s _ Hkind).
        apply (wf_reduced s H i nd E').
      + intros Hk' e He. apply (wf_tags s H Hk' i nd e E' He). }
  constructor.
  - apply (wf_perm_len s H).
  - apply (wf_perm_v2l s H).
  - apply (wf_perm_l2v s H).
  - intros i nd E. apply (Hok i nd E).
  - intros i nd E. apply (Hok i nd E).
  - intros i nd E. apply (Hok i nd E).
  - intros i nd e E. apply (Hok i nd E).
  - intros i nd E. apply (Hok i nd E).
  - intros Hk i nd e E. apply (Hok i nd E). exact Hk.
  - intros i1 i2 n1 n2 E1 E2 Hl Hc.
    destruct (insa_find i1 n1 E1) as [[-> ->]|[Hn1 E1']];
      destruct (insa_find i2 n2 E2) as [[-> ->]|[Hn2 E2']].
    + reflexivity.
    + exfalso. simpl in Hl, Hc. apply (find_dup_none s lvl ch Hnodup i2 n2 E2'); congruence.
    + exfalso. simpl in Hl, Hc. apply (find_dup_none s lvl ch Hnodup i1 n1 E1'); congruence.
    + apply (wf_unique s H i1 i2 n1 n2 E1' E2' Hl Hc).
  - apply (wf_term_ids s H).
  - apply (wf_term_vals s H).
  - intros h Hh. destruct (wf_handles s H h Hh) as [A B].
    split; [apply (ext_ref_ok _ _ _ X A) | exact B].
Qed.

Lemma insa_sem : forall c i ci, c lvl = i -> nth_error ch i = Some ci ->
  semk s' (S (nlevels s')) (RN id) c = semk s (S (nlevels s)) (eref ci) c.
Proof.
  intros c i ci Hi Hn. rewrite semk_S, insa_find_new. simpl nchildren. simpl nlevel.
  rewrite Hi, Hn. destruct Hch as [_ Hce].
  destruct (Hce ci (nth_error_In _ _ Hn)) as [A [B _]].
  rewrite (semk_extends s s' H insa_extends _ _ c A).
  change (nlevels s') with (nlevels s).
  pose proof (rlevel_le s H (eref ci)).
  apply semk_fuel; auto; lia.
Qed.

End InsertAt.

Section Alloc.
Variable alloc : snap -> positive.
Hypothesis Halloc : alloc_ok alloc.

Theorem get_or_insert_a_wf : forall s lvl ch s' e,
  WF s -> kary (s_kind s) -> lvl < nlevels s -> children_ok s lvl ch ->
  all_equal ch = false ->
  get_or_insert_a alloc s lvl ch = (s', e) ->
  WF s' /\ extends s s' /\ ref_ok s' (eref e) /\ etag e = false /\
  rlevel s' (eref e) = lvl /\ shannon s s' lvl ch e.
Proof.
  intros s lvl ch s' e H Hk Hl Hch Hne. unfold get_or_insert_a.
  destruct (find_dup s lvl ch) as [id|] eqn:Ed; intros Heq; inversion Heq; subst s' e; clear Heq.
  - destruct (find_dup_some s lvl ch id Ed) as [nd [E [El Ec]]].
    split; [exact H|]. split; [apply extends_refl|].
    split; [exists nd; exact E|]. split; [reflexivity|].
    split; [simpl; rewrite E; exact El|].
    intros c i ci Hi Hn. simpl eref. rewrite semk_S, E, El, Ec, Hi, Hn.
    destruct Hch as [_ Hce]. destruct (Hce ci (nth_error_In _ _ Hn)) as [A [B _]].
    pose proof (rlevel_le s H (eref ci)).
    apply semk_fuel; auto; lia.
  - pose proof (Halloc s) as Hfree.
    split; [apply insa_wf; assumption|].
    split; [apply insa_extends; assumption|].
    split; [simpl; eexists; apply insa_find_new|].
    split; [reflexivity|].
    split; [simpl; rewrite insa_find_new; reflexivity|].
    intros c i ci Hi Hn. eapply insa_sem; eassumption.
Qed.

Theorem mk_node_a_wf : forall s lvl ch s' e,
  WF s -> kary (s_kind s) -> lvl < nlevels s -> children_ok s lvl ch ->
  mk_node_a alloc s lvl ch = (s', e) ->
  WF s' /\ extends s s' /\ ref_ok s' (eref e) /\ etag e = false /\
  (forall f r c, ref_ok s r -> semk s' f r c = semk s f r c) /\
  shannon s s' lvl ch e /\
  lvl <= rlevel s' (eref e).
Proof.
  intros s lvl ch s' e H Hk Hl Hch. unfold mk_node_a.
  destruct ch as [|c0 rest] eqn:Ech.
  - destruct Hch as [Hlen _]. simpl in Hlen. destruct (s_kind s); discriminate.
  - rewrite <- Ech in *. destruct (all_equal ch) eqn:Ea; intros Heq.
    + inversion Heq; subst s' e; clear Heq.
      assert (Hin : In c0 ch) by (rewrite Ech; left; reflexivity).
      destruct Hch as [_ Hce]. destruct (Hce c0 Hin) as [A [B T]].
      split; [exact H|]. split; [apply extends_refl|]. split; [exact A|]. split; [exact T|].
      split; [reflexivity|]. split; [|lia].
      intros c i ci Hi Hn.
      rewrite (all_equal_nth ch c0 i ci Ea); [reflexivity | rewrite Ech; reflexivity | exact Hn].
    + destruct (get_or_insert_a_wf s lvl ch s' e H Hk Hl Hch Ea Heq) as [A [B [C [D [F G]]]]].
      split; [exact A|]. split; [exact B|]. split; [exact C|]. split; [exact D|].
      split; [intros f r c Hr; apply (semk_extends s s' H B f r c Hr)|].
      split; [exact G | lia].
Qed.

(** the node step shared by the three algorithms (cf. [node_step]) *)
Lemma node_step_a : forall s lvl t e P0 P1 s' h, BddOK s -> lvl < nlevels s ->
  Den s t P0 -> Den s e P1 -> indep P0 (S lvl) -> indep P1 (S lvl) ->
  mk_node_a alloc s lvl [E t; E e] = (s', h) ->
  BddOK s' /\ extends s s' /\
  Den s' (eref h) (fun c => if Nat.eqb (c lvl) 0 then P0 c else P1 c).
Proof.
  intros s lvl t e P0 P1 s' h B Hl Dt De I0 I1 Hm.
  pose proof (bo_wf s B) as H. pose proof (bdd_kary s B) as Hk.
  assert (Lt : S lvl <= rlevel s t) by (apply (den_level s t P0); auto).
  assert (Le : S lvl <= rlevel s e) by (apply (den_level s e P1); auto).
  assert (Hch : children_ok s lvl [E t; E e]).
  { split; [rewrite (bo_kind s B); reflexivity|].
    intros x [<-|[<-|[]]]; simpl; (split; [|split; [lia | reflexivity]]);
      [apply (proj1 Dt) | apply (proj1 De)]. }
  destruct (mk_node_a_wf s lvl _ s' h H Hk Hl Hch Hm) as [W [X [O [T [Sold [Sh _]]]]]].
  split; [apply (bddok_extends s s' B X W)|]. split; [exact X|].
  split; [exact O|]. intros c Hc.
  pose proof (Hc lvl) as Hc2.
  destruct (c lvl) as [|[|k]] eqn:Ec; [| |lia].
  - rewrite (Sh c 0 (E t) Ec eq_refl). simpl. apply (proj2 Dt c Hc).
  - rewrite (Sh c 1 (E e) Ec eq_refl). simpl. apply (proj2 De c Hc).
Qed.

(** if the function to be built already has a reference, [mk_node_a] returns
    it and leaves the table alone (cf. [mk_node_stable]) *)
Lemma mk_node_stable_a : forall s lvl t e P0 P1 s' h r0, BddOK s -> lvl < nlevels s ->
  Den s t P0 -> Den s e P1 -> indep P0 (S lvl) -> indep P1 (S lvl) ->
  mk_node_a alloc s lvl [E t; E e] = (s', h) ->
  Den s r0 (fun c => if Nat.eqb (c lvl) 0 then P0 c else P1 c) ->
  s' = s /\ eref h = r0.
Proof.
  intros s lvl t e P0 P1 s' h r0 B Hl Dt De I0 I1 Hm D0.
  destruct (node_step_a s lvl t e P0 P1 s' h B Hl Dt De I0 I1 Hm) as [B' [X Dh]].
  assert (Eh : eref h = r0) by (apply (den_canon s' _ _ _ B' Dh (den_extends s s' _ _ B X D0))).
  split; [|exact Eh].
  unfold mk_node_a in Hm. destruct (all_equal [E t; E e]); [inversion Hm; reflexivity|].
  unfold get_or_insert_a in Hm. destruct (find_dup s lvl [E t; E e]); inversion Hm; [reflexivity|].
  exfalso. subst h. simpl in Eh. subst r0. destruct (proj1 D0) as [nd En].
  rewrite Halloc in En. discriminate.
Qed.

End Alloc.

(** ** Running two closures as the schedule says

    The same for the three kinds of diagram: [R] the results (references or
    edges), [D] what they denote, [OK] / [CO] the invariants of table and cache,
    [gres] the result predicate ([result_ok], [cresult_ok], [zres_st]), [gfork2]
    the function ([fork2], [cfork2]). *)

Section Fork.
Variables R D : Type.
Variable OK : snap -> Prop.
Variable Dn : snap -> R -> D -> Prop.
Hypothesis Dn_ext : forall s s' r X, OK s -> extends s s' -> Dn s r X -> Dn s' r X.

Definition gfork2 (C : Type) (x : sched) (runT runE : sched -> snap -> C -> option (snap * C * R))
  (s : snap) (c : C) : option (snap * C * R * R) :=
  if sch_swap x then
    match runE (sch_r x) s c with
    | None => None
    | Some (s1, c1, e) =>
      match runT (sch_l x) s1 (if sch_stale x then c else c1) with
      | None => None
      | Some (s2, c2, t) => Some (s2, c2, t, e)
      end
    end
  else
    match runT (sch_l x) s c with
    | None => None
    | Some (s1, c1, t) =>
      match runE (sch_r x) s1 (if sch_stale x then c else c1) with
      | None => None
      | Some (s2, c2, e) => Some (s2, c2, t, e)
      end
    end.

Definition gres (C : Type) (CO : snap -> C -> Prop) (s : snap) (res : option (snap * C * R)) (X : D) : Prop :=
  exists s' c' r, res = Some (s', c', r) /\
    OK s' /\ extends s s' /\ CO s' c' /\ Dn s' r X /\
    (forall r0, Dn s r0 X -> s' = s /\ r = r0).

Definition grun_ok (C : Type) (CO : snap -> C -> Prop) (s : snap)
  (run : sched -> snap -> C -> option (snap * C * R)) (X : D) : Prop :=
  forall x s' c', OK s' -> extends s s' -> CO s' c' -> gres C CO s' (run x s' c') X.

Lemma gfork2_ok : forall (C : Type) (CO : snap -> C -> Prop),
  (forall s s' c, OK s -> extends s s' -> CO s c -> CO s' c) ->
  forall x runT runE s c P0 P1,
  OK s -> CO s c -> grun_ok C CO s runT P0 -> grun_ok C CO s runE P1 ->
  exists s2 c2 t e, gfork2 C x runT runE s c = Some (s2, c2, t, e) /\
    OK s2 /\ extends s s2 /\ CO s2 c2 /\ Dn s2 t P0 /\ Dn s2 e P1 /\
    (forall q0 q1, Dn s q0 P0 -> Dn s q1 P1 -> s2 = s /\ t = q0 /\ e = q1).
Proof.
  intros C CO CO_ext x runT runE s c P0 P1 B O HT HE. unfold gfork2. destruct (sch_swap x).
  - destruct (HE (sch_r x) s c B (extends_refl s) O) as [s1 [c1 [e [E1 [B1 [X1 [O1 [D1 S1]]]]]]]].
    rewrite E1.
    assert (Oc : CO s1 (if sch_stale x then c else c1))
      by (destruct (sch_stale x); [apply (CO_ext s s1 c B X1 O) | exact O1]).
    destruct (HT (sch_l x) s1 _ B1 X1 Oc) as [s2 [c2 [t [E2 [B2 [X2 [O2 [D2 S2]]]]]]]].
    rewrite E2. exists s2, c2, t, e.
    split; [reflexivity|]. split; [exact B2|]. split; [eapply extends_trans; eauto|].
    split; [exact O2|]. split; [exact D2|]. split; [apply (Dn_ext s1 s2 _ _ B1 X2 D1)|].
    intros q0 q1 Dq0 Dq1. destruct (S1 q1 Dq1) as [-> ->]. destruct (S2 q0 Dq0) as [-> ->]. auto.
  - destruct (HT (sch_l x) s c B (extends_refl s) O) as [s1 [c1 [t [E1 [B1 [X1 [O1 [D1 S1]]]]]]]].
    rewrite E1.
    assert (Oc : CO s1 (if sch_stale x then c else c1))
      by (destruct (sch_stale x); [apply (CO_ext s s1 c B X1 O) | exact O1]).
    destruct (HE (sch_r x) s1 _ B1 X1 Oc) as [s2 [c2 [e [E2 [B2 [X2 [O2 [D2 S2]]]]]]]].
    rewrite E2. exists s2, c2, t, e.
    split; [reflexivity|]. split; [exact B2|]. split; [eapply extends_trans; eauto|].
    split; [exact O2|]. split; [apply (Dn_ext s1 s2 _ _ B1 X2 D1)|]. split; [exact D2|].
    intros q0 q1 Dq0 Dq1. destruct (S1 q0 Dq0) as [-> ->]. destruct (S2 q1 Dq1) as [-> ->]. auto.
Qed.

Definition gsame_out (C1 C2 : Type) (r1 : option (snap * C1 * R)) (r2 : option (snap * C2 * R)) : Prop :=
  match r1, r2 with
  | Some (s1, _, a), Some (s2, _, b) => s1 = s2 /\ a = b
  | _, _ => False
  end.

Definition gruns_agree (C1 C2 : Type) (CO1 : snap -> C1 -> Prop) (CO2 : snap -> C2 -> Prop) (s : snap)
  (run1 : sched -> snap -> C1 -> option (snap * C1 * R))
  (run2 : sched -> snap -> C2 -> option (snap * C2 * R)) : Prop :=
  forall x s' a b, OK s' -> extends s s' -> CO1 s' a -> CO2 s' b -> gsame_out C1 C2 (run1 x s' a) (run2 x s' b).

Lemma gfork2_agree : forall (C1 C2 : Type) (CO1 : snap -> C1 -> Prop) (CO2 : snap -> C2 -> Prop),
  (forall s s' c, OK s -> extends s s' -> CO1 s c -> CO1 s' c) ->
  (forall s s' c, OK s -> extends s s' -> CO2 s c -> CO2 s' c) ->
  forall x runT1 runE1 runT2 runE2 s c1 c2 P0 P1,
  OK s -> CO1 s c1 -> CO2 s c2 ->
  grun_ok C1 CO1 s runT1 P0 -> grun_ok C2 CO2 s runT2 P0 ->
  grun_ok C1 CO1 s runE1 P1 -> grun_ok C2 CO2 s runE2 P1 ->
  gruns_agree C1 C2 CO1 CO2 s runT1 runT2 -> gruns_agree C1 C2 CO1 CO2 s runE1 runE2 ->
  match gfork2 C1 x runT1 runE1 s c1, gfork2 C2 x runT2 runE2 s c2 with
  | Some (sa, _, ta, ea), Some (sb, _, tb, eb) => sa = sb /\ ta = tb /\ ea = eb
  | _, _ => False
  end.
Proof.
  intros C1 C2 CO1 CO2 Ext1 Ext2 x runT1 runE1 runT2 runE2 s c1 c2 P0 P1 B O1 O2 HT1 HT2 HE1 HE2 AT AE.
  unfold gfork2. destruct (sch_swap x).
  - destruct (HE1 (sch_r x) s c1 B (extends_refl s) O1) as [sa [ca [ea [Ea [Ba [Xa [Oa _]]]]]]].
    destruct (HE2 (sch_r x) s c2 B (extends_refl s) O2) as [sb [cb [eb [Eb [_ [_ [Ob _]]]]]]].
    pose proof (AE (sch_r x) s c1 c2 B (extends_refl s) O1 O2) as A. rewrite Ea, Eb in A.
    destruct A as [<- <-]. rewrite Ea, Eb.
    assert (Oc1 : CO1 sa (if sch_stale x then c1 else ca))
      by (destruct (sch_stale x); [apply (Ext1 s sa c1 B Xa O1) | exact Oa]).
    assert (Oc2 : CO2 sa (if sch_stale x then c2 else cb))
      by (destruct (sch_stale x); [apply (Ext2 s sa c2 B Xa O2) | exact Ob]).
    destruct (HT1 (sch_l x) sa _ Ba Xa Oc1) as [s2 [c2' [t [Et _]]]].
    destruct (HT2 (sch_l x) sa _ Ba Xa Oc2) as [s3 [c3' [t' [Et' _]]]].
    pose proof (AT (sch_l x) sa _ _ Ba Xa Oc1 Oc2) as A. rewrite Et, Et' in A.
    destruct A as [<- <-]. rewrite Et, Et'. auto.
  - destruct (HT1 (sch_l x) s c1 B (extends_refl s) O1) as [sa [ca [ta [Ea [Ba [Xa [Oa _]]]]]]].
    destruct (HT2 (sch_l x) s c2 B (extends_refl s) O2) as [sb [cb [tb [Eb [_ [_ [Ob _]]]]]]].
    pose proof (AT (sch_l x) s c1 c2 B (extends_refl s) O1 O2) as A. rewrite Ea, Eb in A.
    destruct A as [<- <-]. rewrite Ea, Eb.
    assert (Oc1 : CO1 sa (if sch_stale x then c1 else ca))
      by (destruct (sch_stale x); [apply (Ext1 s sa c1 B Xa O1) | exact Oa]).
    assert (Oc2 : CO2 sa (if sch_stale x then c2 else cb))
      by (destruct (sch_stale x); [apply (Ext2 s sa c2 B Xa O2) | exact Ob]).
    destruct (HE1 (sch_r x) sa _ Ba Xa Oc1) as [s2 [c2' [e [Ee _]]]].
    destruct (HE2 (sch_r x) sa _ Ba Xa Oc2) as [s3 [c3' [e' [Ee' _]]]].
    pose proof (AE (sch_r x) sa _ _ Ba Xa Oc1 Oc2) as A. rewrite Ee, Ee' in A.
    destruct A as [<- <-]. rewrite Ee, Ee'. auto.
Qed.

End Fork.

(** ** One fork/join step under an arbitrary schedule *)

Section Gen.
Variable alloc : snap -> positive.
Hypothesis Halloc : alloc_ok alloc.
Variable gt : ref -> ref -> bool.
Variable C : Type.
Variable cget : C -> N -> list ref -> option ref.
Variable cadd : C -> N -> list ref -> ref -> C.
Hypothesis Hlossy : lossy cget cadd.

(** a closure of the recursion computes [P] in every later state of table [s]
    (whatever other closures added in the meantime, whatever the cache holds),
    under every schedule *)
Definition run_ok (s : snap) (run : sched -> snap -> C -> option (snap * C * ref))
  (P : (nat -> nat) -> bool) : Prop :=
  forall x s' c', BddOK s' -> extends s s' -> CacheOK cget s' c' ->
    result_ok C cget s' c' (run x s' c') P.

Lemma fork2_ok : forall x runT runE s c P0 P1,
  BddOK s -> CacheOK cget s c -> run_ok s runT P0 -> run_ok s runE P1 ->
  exists s2 c2 t e, fork2 C x runT runE s c = Some (s2, c2, t, e) /\
    BddOK s2 /\ extends s s2 /\ CacheOK cget s2 c2 /\ Den s2 t P0 /\ Den s2 e P1 /\
    (forall q0 q1, Den s q0 P0 -> Den s q1 P1 -> s2 = s /\ t = q0 /\ e = q1).
Proof.
  exact (gfork2_ok ref _ BddOK Den den_extends C (CacheOK cget) (cacheok_extends C cget)).
Qed.

Lemma cofn_self : forall Phi lvl c0, indep Phi lvl -> bchoice c0 ->
  cofn Phi lvl (c0 lvl) c0 = Phi c0.
Proof.
  intros Phi lvl c0 I Hc. unfold cofn. apply I; [apply bchoice_upd; auto | exact Hc|].
  intros l _. unfold cupd. destruct (Nat.eqb_spec l lvl); [subst; reflexivity | reflexivity].
Qed.

Lemma join2_ok : forall x runT runE s c lvl code args Phi,
  BddOK s -> CacheOK cget s c -> lvl < nlevels s -> indep Phi lvl ->
  run_ok s runT (cofn Phi lvl 0) -> run_ok s runE (cofn Phi lvl 1) ->
  (forall s3 r, BddOK s3 -> extends s s3 -> Den s3 r Phi -> entry_ok s3 code args r) ->
  result_ok C cget s c (join2 alloc C cadd x runT runE s c lvl code args) Phi.
Proof.
  intros x runT runE s c lvl code args Phi B O Hlvl I HT HE Hent. unfold join2.
  destruct (fork2_ok x runT runE s c _ _ B O HT HE)
    as [s2 [c2 [t [e [Ef [B2 [X2 [O2 [Dt [De Sf]]]]]]]]]].
  rewrite Ef. destruct (mk_node_a alloc s2 lvl [E t; E e]) as [s3 h] eqn:Em.
  assert (I0 : indep (cofn Phi lvl 0) (S lvl)) by (apply (indep_cofn Phi lvl lvl 0 I); lia).
  assert (I1 : indep (cofn Phi lvl 1) (S lvl)) by (apply (indep_cofn Phi lvl lvl 1 I); lia).
  assert (Hl2 : lvl < nlevels s2) by (rewrite (ext_nlevels _ _ X2); exact Hlvl).
  destruct (node_step_a alloc Halloc s2 lvl t e _ _ s3 h B2 Hl2 Dt De I0 I1 Em) as [B3 [X3 Dh]].
  assert (X03 : extends s s3) by (eapply extends_trans; eauto).
  assert (Heq : forall c0, bchoice c0 ->
            (if Nat.eqb (c0 lvl) 0 then cofn Phi lvl 0 c0 else cofn Phi lvl 1 c0) = Phi c0).
  { intros c0 Hc. rewrite (shannon_pick c0 lvl (fun i => cofn Phi lvl i c0) Hc).
    apply cofn_self; assumption. }
  assert (Dres : Den s3 (eref h) Phi) by (apply (den_ext _ _ _ _ Dh Heq)).
  exists s3, (cadd c2 code args (eref h)), (eref h).
  split; [reflexivity|]. split; [exact B3|]. split; [exact X03|].
  split; [|split; [exact Dres|]].
  { apply (cacheok_add C cget cadd Hlossy); [apply (cacheok_extends C cget s2 s3 c2 B2 X3 O2)|].
    apply Hent; assumption. }
  intros r0 D0.
  assert (L0 : lvl <= rlevel s r0) by (apply (den_level s r0 Phi lvl B D0 ltac:(lia) I)).
  destruct (den_cof_exists s r0 _ lvl 0 B D0 L0 Hlvl ltac:(lia)) as [q0 Dq0].
  destruct (den_cof_exists s r0 _ lvl 1 B D0 L0 Hlvl ltac:(lia)) as [q1 Dq1].
  destruct (Sf q0 q1 Dq0 Dq1) as [-> [-> ->]].
  apply (mk_node_stable_a alloc Halloc s lvl q0 q1 _ _ s3 h r0 B Hlvl Dt De I0 I1 Em).
  apply (den_ext s r0 _ _ D0). intros c0 Hc. symmetry. apply Heq. exact Hc.
Qed.

(** ** [apply_not_g] *)

Lemma apply_not_g_S : forall n x s c f,
  apply_not_g alloc C cget cadd (S n) x s c f =
  match f with
  | RT _ =>
    match view s f with
    | Some (VT b) =>
      match term_of s (negb b) with Some t => Some (s, c, RT t) | None => None end
    | _ => None
    end
  | RN id =>
    match find_node s id with
    | None => None
    | Some nd =>
      match cget c code_not [f] with
      | Some h => Some (s, c, h)
      | None =>
        match nchildren nd with
        | [ft; fe] =>
          join2 alloc C cadd x
                (fun x' s' c' => apply_not_g alloc C cget cadd n x' s' c' (eref ft))
                (fun x' s' c' => apply_not_g alloc C cget cadd n x' s' c' (eref fe))
                s c (nstored nd) code_not [f]
        | _ => None
        end
      end
    end
  end.
Proof. reflexivity. Qed.

Theorem apply_not_g_ok : forall fuel x s c f phi,
  BddOK s -> CacheOK cget s c -> Den s f phi -> nlevels s - rlevel s f < fuel ->
  result_ok C cget s c (apply_not_g alloc C cget cadd fuel x s c f) (fun c0 => negb (phi c0)).
Proof.
  induction fuel as [|n IH]; intros x s c f phi B O D Hf; [lia|].
  pose proof (bo_wf s B) as H.
  rewrite apply_not_g_S. destruct f as [t|id].
  - destruct (view_total s (RT t) B (proj1 D)) as [v V]. rewrite V.
    destruct v as [|b]; [destruct (view_VI s _ V) as [i Hi]; discriminate|].
    destruct (term_of_total s (negb b) B) as [t' Et]. rewrite Et.
    apply result_ok_here; auto.
    apply (den_ext s (RT t') (fun _ => negb b)); [apply den_const; auto|].
    intros c0 Hc. rewrite (view_den_T s (RT t) b phi D V c0 Hc). reflexivity.
  - destruct (proj1 D) as [nd E]. rewrite E.
    rewrite (rlevel_node s id nd E) in Hf. pose proof (wf_level s H id nd E) as Hlv.
    destruct (cget c code_not [RN id]) as [h|] eqn:Eg.
    + destruct (O _ _ _ Eg eq_refl) as [phi' [D' Dh]].
      apply result_ok_here; auto.
      apply (den_ext s h _ _ Dh). intros c0 Hc.
      rewrite (den_unique s (RN id) phi' phi D' D c0 Hc). reflexivity.
    + destruct (bdd_children s id nd B E) as [a [b Ech]]. rewrite Ech.
      assert (Ha : nth_error (nchildren nd) 0 = Some a) by (rewrite Ech; reflexivity).
      assert (Hb : nth_error (nchildren nd) 1 = Some b) by (rewrite Ech; reflexivity).
      pose proof (den_child s id nd 0 a phi B D E Ha) as Da.
      pose proof (den_child s id nd 1 b phi B D E Hb) as Db.
      destruct (child_nth s H id nd 0 a E Ha) as [Oa La].
      destruct (child_nth s H id nd 1 b E Hb) as [Ob Lb].
      rewrite (wf_stored s H id nd E).
      assert (Ip : indep phi (nlevel nd))
        by (rewrite <- (rlevel_node s id nd E); apply (den_indep s _ phi H D)).
      apply join2_ok; auto.
      * intros u v Hu Hv Euv. f_equal. apply Ip; auto.
      * intros x' s' c' B' X' O'.
        apply (IH x' s' c' (eref a) (cofn phi (nlevel nd) 0) B' O' (den_extends s s' _ _ B X' Da)).
        rewrite (ext_nlevels _ _ X'), (ext_rlevel _ _ _ X' Oa). lia.
      * intros x' s' c' B' X' O'.
        apply (IH x' s' c' (eref b) (cofn phi (nlevel nd) 1) B' O' (den_extends s s' _ _ B X' Db)).
        rewrite (ext_nlevels _ _ X'), (ext_rlevel _ _ _ X' Ob). lia.
      * intros s3 r B3 X3 Dr _. exists phi. split; [apply (den_extends s s3 _ _ B X3 D) | exact Dr].
Qed.

(** ** [apply_bin_g] *)

Lemma apply_bin_g_S : forall n x s c op f g,
  apply_bin_g alloc gt C cget cadd (S n) x s c op f g =
  match terminal_bin gt s op f g with
  | TFail => None
  | TDone h => Some (s, c, h)
  | TNot r => apply_not_g alloc C cget cadd (S n) x s c r
  | TBin o a b =>
    match cget c (op_code o) [a; b] with
    | Some h => Some (s, c, h)
    | None =>
      match inner s f, inner s g with
      | Some fnode, Some gnode =>
        let lvl := Nat.min (nstored fnode) (nstored gnode) in
        match cof2 f fnode lvl, cof2 g gnode lvl with
        | Some (ft, fe), Some (gt', ge) =>
          join2 alloc C cadd x
                (fun x' s' c' => apply_bin_g alloc gt C cget cadd n x' s' c' op ft gt')
                (fun x' s' c' => apply_bin_g alloc gt C cget cadd n x' s' c' op fe ge)
                s c lvl (op_code o) [a; b]
        | _, _ => None
        end
      | _, _ => None
      end
    end
  end.
Proof. reflexivity. Qed.

Theorem apply_bin_g_ok : forall op fuel x s c f g phi psi,
  BddOK s -> CacheOK cget s c -> Den s f phi -> Den s g psi ->
  nlevels s - Nat.min (rlevel s f) (rlevel s g) < fuel ->
  result_ok C cget s c (apply_bin_g alloc gt C cget cadd fuel x s c op f g)
            (fun c0 => eval_bop op (phi c0) (psi c0)).
Proof.
  intros op. induction fuel as [|n IH]; intros x s c f g phi psi B O Df Dg Hfuel; [lia|].
  pose proof (bo_wf s B) as H.
  rewrite apply_bin_g_S.
  pose proof (terminal_bin_sound gt s op f g phi psi B Df Dg) as T.
  destruct (terminal_bin gt s op f g) as [r|r|o a b|] eqn:Etb; [| | |contradiction].
  - apply result_ok_here; auto.
  - destruct T as [Hr [rho [Dr Hrho]]].
    assert (Hfr : nlevels s - rlevel s r < S n) by (destruct Hr as [->| ->]; lia).
    apply (result_ok_ext C cget s c _ (fun c0 => negb (rho c0))).
    + apply (apply_not_g_ok (S n) x s c r rho B O Dr Hfr).
    + intros c0 Hc. symmetry. apply Hrho. exact Hc.
  - destruct T as [-> [[idf ->] [[idg ->] Hab]]].
    destruct (proj1 Df) as [fnd Ef]. destruct (proj1 Dg) as [gnd Eg].
    rewrite (rlevel_node s idf fnd Ef), (rlevel_node s idg gnd Eg) in Hfuel.
    pose proof (wf_level s H idf fnd Ef) as Hlf. pose proof (wf_level s H idg gnd Eg) as Hlg.
    destruct (cget c (op_code op) [a; b]) as [h|] eqn:Ec.
    + destruct (O _ _ _ Ec op eq_refl) as [pa [pb [Da [Db Dh]]]].
      apply result_ok_here; auto. apply (den_ext s h _ _ Dh). intros c0 Hc.
      destruct Hab as [[-> ->]|[-> [-> Hcomm]]].
      * rewrite (den_unique s _ pa phi Da Df c0 Hc), (den_unique s _ pb psi Db Dg c0 Hc). reflexivity.
      * rewrite (den_unique s _ pa psi Da Dg c0 Hc), (den_unique s _ pb phi Db Df c0 Hc). apply Hcomm.
    + simpl inner. rewrite Ef, Eg.
      rewrite (wf_stored s H idf fnd Ef), (wf_stored s H idg gnd Eg).
      set (lvl := Nat.min (nlevel fnd) (nlevel gnd)) in *. cbv zeta.
      destruct (cof2_ok s idf fnd phi lvl B Df Ef ltac:(lia)) as [ft [fe [Ecf [Dft [Dfe [Lft Lfe]]]]]].
      destruct (cof2_ok s idg gnd psi lvl B Dg Eg ltac:(lia)) as [gt' [ge [Ecg [Dgt [Dge [Lgt Lge]]]]]].
      rewrite Ecf, Ecg.
      assert (Hlvl : lvl < nlevels s) by lia.
      assert (Ip : indep phi (nlevel fnd))
        by (rewrite <- (rlevel_node s idf fnd Ef); apply (den_indep s _ phi H Df)).
      assert (Iq : indep psi (nlevel gnd))
        by (rewrite <- (rlevel_node s idg gnd Eg); apply (den_indep s _ psi H Dg)).
      apply join2_ok; auto.
      * intros u v Hu Hv Euv. f_equal.
        -- apply (indep_mono phi _ lvl Ip ltac:(lia)); auto.
        -- apply (indep_mono psi _ lvl Iq ltac:(lia)); auto.
      * intros x' s' c' B' X' O'.
        apply (IH x' s' c' ft gt' (cofn phi lvl 0) (cofn psi lvl 0) B' O'
                  (den_extends s s' _ _ B X' Dft) (den_extends s s' _ _ B X' Dgt)).
        rewrite (ext_nlevels _ _ X'), (ext_rlevel _ _ _ X' (proj1 Dft)), (ext_rlevel _ _ _ X' (proj1 Dgt)). lia.
      * intros x' s' c' B' X' O'.
        apply (IH x' s' c' fe ge (cofn phi lvl 1) (cofn psi lvl 1) B' O'
                  (den_extends s s' _ _ B X' Dfe) (den_extends s s' _ _ B X' Dge)).
        rewrite (ext_nlevels _ _ X'), (ext_rlevel _ _ _ X' (proj1 Dfe)), (ext_rlevel _ _ _ X' (proj1 Dge)). lia.
      * intros s3 r B3 X3 Dr o Ho. apply op_code_inj in Ho. subst o.
        pose proof (den_extends s s3 _ _ B X3 Df) as Df3.
        pose proof (den_extends s s3 _ _ B X3 Dg) as Dg3.
        destruct Hab as [[-> ->]|[-> [-> Hcomm]]].
        -- exists phi, psi. auto.
        -- exists psi, phi. split; [exact Dg3|]. split; [exact Df3|].
           apply (den_ext _ _ _ _ Dr). intros c0 _. apply Hcomm.
Qed.

(** ** [apply_ite_g] *)

Lemma apply_ite_g_S : forall n x s c f g h,
  apply_ite_g alloc gt C cget cadd (S n) x s c f g h =
    if ref_eqb g h then Some (s, c, g)
    else if ref_eqb f g then apply_bin_g alloc gt C cget cadd (S n) x s c OOr f h
    else if ref_eqb f h then apply_bin_g alloc gt C cget cadd (S n) x s c OAnd f g
    else
      match view s f with
      | None => None
      | Some (VT b) => Some (s, c, if b then g else h)
      | Some VI =>
        match view s g, view s h with
        | Some (VT true), Some VI => apply_bin_g alloc gt C cget cadd (S n) x s c OOr f h
        | Some (VT false), Some VI => apply_bin_g alloc gt C cget cadd (S n) x s c OImpStrict f h
        | Some VI, Some (VT true) => apply_bin_g alloc gt C cget cadd (S n) x s c OImp f g
        | Some VI, Some (VT false) => apply_bin_g alloc gt C cget cadd (S n) x s c OAnd f g
        | Some (VT false), Some (VT _) => apply_not_g alloc C cget cadd (S n) x s c f
        | Some (VT true), Some (VT _) => Some (s, c, f)
        | Some VI, Some VI =>
          match cget c code_ite [f; g; h] with
          | Some r => Some (s, c, r)
          | None =>
            match inner s f, inner s g, inner s h with
            | Some fnode, Some gnode, Some hnode =>
              let lvl := Nat.min (Nat.min (nstored fnode) (nstored gnode)) (nstored hnode) in
              match cof2 f fnode lvl, cof2 g gnode lvl, cof2 h hnode lvl with
              | Some (ft, fe), Some (gt', ge), Some (ht, he) =>
                join2 alloc C cadd x
                      (fun x' s' c' => apply_ite_g alloc gt C cget cadd n x' s' c' ft gt' ht)
                      (fun x' s' c' => apply_ite_g alloc gt C cget cadd n x' s' c' fe ge he)
                      s c lvl code_ite [f; g; h]
              | _, _, _ => None
              end
            | _, _, _ => None
            end
          end
        | _, _ => None
        end
      end.
Proof. reflexivity. Qed.

Local Ltac pw3 phi psi theta :=
  let c0 := fresh "c0" in let Hc := fresh "Hc" in
  intros c0 Hc; cbv beta;
  repeat match goal with
         | Hx : forall c, bchoice c -> _ = _ |- _ => pose proof (Hx c0 Hc); clear Hx
         end;
  destruct (phi c0); destruct (psi c0); destruct (theta c0); simpl in *; congruence.

Theorem apply_ite_g_ok : forall fuel x s c f g h phi psi theta,
  BddOK s -> CacheOK cget s c -> Den s f phi -> Den s g psi -> Den s h theta ->
  nlevels s - Nat.min (Nat.min (rlevel s f) (rlevel s g)) (rlevel s h) < fuel ->
  result_ok C cget s c (apply_ite_g alloc gt C cget cadd fuel x s c f g h)
            (fun c0 => if phi c0 then psi c0 else theta c0).
Proof.
  induction fuel as [|n IH]; intros x s c f g h phi psi theta B O Df Dg Dh Hfuel; [lia|].
  pose proof (bo_wf s B) as H.
  rewrite apply_ite_g_S.
  destruct (ref_eqb g h) eqn:Egh.
  { apply ref_eqb_true in Egh. subst h.
    pose proof (den_unique s g psi theta Dg Dh) as U.
    apply result_ok_here; auto. apply (den_ext s g psi); [exact Dg|]. pw3 phi psi theta. }
  destruct (ref_eqb f g) eqn:Efg.
  { apply ref_eqb_true in Efg. subst g.
    pose proof (den_unique s f phi psi Df Dg) as U.
    apply (result_ok_ext C cget s c _ (fun c0 => eval_bop OOr (phi c0) (theta c0))).
    - apply (apply_bin_g_ok OOr (S n) x s c f h phi theta B O Df Dh). lia.
    - pw3 phi psi theta. }
  destruct (ref_eqb f h) eqn:Efh.
  { apply ref_eqb_true in Efh. subst h.
    pose proof (den_unique s f phi theta Df Dh) as U.
    apply (result_ok_ext C cget s c _ (fun c0 => eval_bop OAnd (phi c0) (psi c0))).
    - apply (apply_bin_g_ok OAnd (S n) x s c f g phi psi B O Df Dg). lia.
    - pw3 phi psi theta. }
  destruct (view_total s f B (proj1 Df)) as [vf Vf].
  destruct (view_total s g B (proj1 Dg)) as [vg Vg].
  destruct (view_total s h B (proj1 Dh)) as [vh Vh].
  rewrite Vf. destruct vf as [|bf].
  2:{ pose proof (view_den_T s f bf phi Df Vf) as U.
      apply result_ok_here; auto. destruct bf.
      - apply (den_ext s g psi); [exact Dg|]. pw3 phi psi theta.
      - apply (den_ext s h theta); [exact Dh|]. pw3 phi psi theta. }
  rewrite Vg, Vh. destruct vg as [|[]], vh as [|[]].
  - (* all three inner *)
    destruct (view_VI s f Vf) as [idf ->]. destruct (view_VI s g Vg) as [idg ->].
    destruct (view_VI s h Vh) as [idh ->].
    destruct (proj1 Df) as [fnd Ef]. destruct (proj1 Dg) as [gnd Eg]. destruct (proj1 Dh) as [hnd Eh].
    rewrite (rlevel_node s idf fnd Ef), (rlevel_node s idg gnd Eg), (rlevel_node s idh hnd Eh) in Hfuel.
    pose proof (wf_level s H idf fnd Ef) as Hlf. pose proof (wf_level s H idg gnd Eg) as Hlg.
    pose proof (wf_level s H idh hnd Eh) as Hlh.
    destruct (cget c code_ite [RN idf; RN idg; RN idh]) as [r|] eqn:Ec.
    + destruct (O _ _ _ Ec eq_refl) as [pa [pb [pc [Da [Db [Dc Dr]]]]]].
      apply result_ok_here; auto. apply (den_ext s r _ _ Dr). intros c0 Hc.
      rewrite (den_unique s _ pa phi Da Df c0 Hc), (den_unique s _ pb psi Db Dg c0 Hc),
              (den_unique s _ pc theta Dc Dh c0 Hc). reflexivity.
    + simpl inner. rewrite Ef, Eg, Eh.
      rewrite (wf_stored s H idf fnd Ef), (wf_stored s H idg gnd Eg), (wf_stored s H idh hnd Eh).
      set (lvl := Nat.min (Nat.min (nlevel fnd) (nlevel gnd)) (nlevel hnd)) in *. cbv zeta.
      destruct (cof2_ok s idf fnd phi lvl B Df Ef ltac:(lia)) as [ft [fe [Ecf [Dft [Dfe [Lft Lfe]]]]]].
      destruct (cof2_ok s idg gnd psi lvl B Dg Eg ltac:(lia)) as [gt' [ge [Ecg [Dgt [Dge [Lgt Lge]]]]]].
      destruct (cof2_ok s idh hnd theta lvl B Dh Eh ltac:(lia)) as [ht [he [Ech [Dht [Dhe [Lht Lhe]]]]]].
      rewrite Ecf, Ecg, Ech.
      assert (Hlvl : lvl < nlevels s) by lia.
      assert (Ip : indep phi (nlevel fnd))
        by (rewrite <- (rlevel_node s idf fnd Ef); apply (den_indep s _ phi H Df)).
      assert (Iq : indep psi (nlevel gnd))
        by (rewrite <- (rlevel_node s idg gnd Eg); apply (den_indep s _ psi H Dg)).
      assert (Ir : indep theta (nlevel hnd))
        by (rewrite <- (rlevel_node s idh hnd Eh); apply (den_indep s _ theta H Dh)).
      apply join2_ok; auto.
      * intros u v Hu Hv Euv.
        rewrite (indep_mono phi _ lvl Ip ltac:(lia) u v Hu Hv Euv).
        rewrite (indep_mono psi _ lvl Iq ltac:(lia) u v Hu Hv Euv).
        rewrite (indep_mono theta _ lvl Ir ltac:(lia) u v Hu Hv Euv). reflexivity.
      * intros x' s' c' B' X' O'.
        apply (IH x' s' c' ft gt' ht (cofn phi lvl 0) (cofn psi lvl 0) (cofn theta lvl 0) B' O'
                  (den_extends s s' _ _ B X' Dft) (den_extends s s' _ _ B X' Dgt)
                  (den_extends s s' _ _ B X' Dht)).
        rewrite (ext_nlevels _ _ X'), (ext_rlevel _ _ _ X' (proj1 Dft)),
                (ext_rlevel _ _ _ X' (proj1 Dgt)), (ext_rlevel _ _ _ X' (proj1 Dht)). lia.
      * intros x' s' c' B' X' O'.
        apply (IH x' s' c' fe ge he (cofn phi lvl 1) (cofn psi lvl 1) (cofn theta lvl 1) B' O'
                  (den_extends s s' _ _ B X' Dfe) (den_extends s s' _ _ B X' Dge)
                  (den_extends s s' _ _ B X' Dhe)).
        rewrite (ext_nlevels _ _ X'), (ext_rlevel _ _ _ X' (proj1 Dfe)),
                (ext_rlevel _ _ _ X' (proj1 Dge)), (ext_rlevel _ _ _ X' (proj1 Dhe)). lia.
      * intros s3 r B3 X3 Dr _. exists phi, psi, theta.
        split; [apply (den_extends s s3 _ _ B X3 Df)|].
        split; [apply (den_extends s s3 _ _ B X3 Dg)|].
        split; [apply (den_extends s s3 _ _ B X3 Dh) | exact Dr].
  - pose proof (view_den_T s h true theta Dh Vh) as U.
    apply (result_ok_ext C cget s c _ (fun c0 => eval_bop OImp (phi c0) (psi c0))).
    + apply (apply_bin_g_ok OImp (S n) x s c f g phi psi B O Df Dg). lia.
    + pw3 phi psi theta.
  - pose proof (view_den_T s h false theta Dh Vh) as U.
    apply (result_ok_ext C cget s c _ (fun c0 => eval_bop OAnd (phi c0) (psi c0))).
    + apply (apply_bin_g_ok OAnd (S n) x s c f g phi psi B O Df Dg). lia.
    + pw3 phi psi theta.
  - pose proof (view_den_T s g true psi Dg Vg) as U.
    apply (result_ok_ext C cget s c _ (fun c0 => eval_bop OOr (phi c0) (theta c0))).
    + apply (apply_bin_g_ok OOr (S n) x s c f h phi theta B O Df Dh). lia.
    + pw3 phi psi theta.
  - pose proof (view_den_T s g true psi Dg Vg) as U. pose proof (view_den_T s h true theta Dh Vh) as U'.
    exfalso. destruct (view_VT s g true Vg) as [tg [-> Tg]]. destruct (view_VT s h true Vh) as [th [-> Th]].
    rewrite (term_val_inj s tg th _ H Tg Th) in Egh.
    assert (Xe : ref_eqb (RT th) (RT th) = true) by (apply ref_eqb_eq; reflexivity). congruence.
  - pose proof (view_den_T s g true psi Dg Vg) as U. pose proof (view_den_T s h false theta Dh Vh) as U'.
    apply result_ok_here; auto. apply (den_ext s f phi); [exact Df|]. pw3 phi psi theta.
  - pose proof (view_den_T s g false psi Dg Vg) as U.
    apply (result_ok_ext C cget s c _ (fun c0 => eval_bop OImpStrict (phi c0) (theta c0))).
    + apply (apply_bin_g_ok OImpStrict (S n) x s c f h phi theta B O Df Dh). lia.
    + pw3 phi psi theta.
  - pose proof (view_den_T s g false psi Dg Vg) as U. pose proof (view_den_T s h true theta Dh Vh) as U'.
    apply (result_ok_ext C cget s c _ (fun c0 => negb (phi c0))).
    + apply (apply_not_g_ok (S n) x s c f phi B O Df). lia.
    + pw3 phi psi theta.
  - exfalso. destruct (view_VT s g false Vg) as [tg [-> Tg]]. destruct (view_VT s h false Vh) as [th [-> Th]].
    rewrite (term_val_inj s tg th _ H Tg Th) in Egh.
    assert (Xe : ref_eqb (RT th) (RT th) = true) by (apply ref_eqb_eq; reflexivity). congruence.
Qed.

End Gen.

(** ** The sequential configuration with [fresh_id] is the model of DD/Apply.v *)

Lemma mk_node_a_fresh : forall s lvl ch, mk_node_a fresh_id s lvl ch = mk_node s lvl ch.
Proof. reflexivity. Qed.

Section Seq.
Variable gt : ref -> ref -> bool.
Variable C : Type.
Variable cget : C -> N -> list ref -> option ref.
Variable cadd : C -> N -> list ref -> ref -> C.

Lemma join2_seq : forall runT runE runT' runE' s c lvl code args,
  (forall s' c', runT SSeq s' c' = runT' s' c') -> (forall s' c', runE SSeq s' c' = runE' s' c') ->
  join2 fresh_id C cadd SSeq runT runE s c lvl code args =
  match runT' s c with
  | None => None
  | Some (s1, c1, t) =>
    match runE' s1 c1 with
    | None => None
    | Some (s2, c2, e) =>
      let '(s3, h) := mk_node s2 lvl [E t; E e] in
      Some (s3, cadd c2 code args (eref h), eref h)
    end
  end.
Proof.
  intros runT runE runT' runE' s c lvl code args HT HE. unfold join2, fork2. simpl.
  rewrite HT. destruct (runT' s c) as [[[s1 c1] t]|]; [|reflexivity].
  rewrite HE. destruct (runE' s1 c1) as [[[s2 c2] e]|]; reflexivity.
Qed.

Theorem apply_not_g_seq : forall fuel s c f,
  apply_not_g fresh_id C cget cadd fuel SSeq s c f = apply_not C cget cadd fuel s c f.
Proof.
  induction fuel as [|n IH]; intros s c f; [reflexivity|].
  rewrite apply_not_g_S, apply_not_S. destruct f as [t|id]; [reflexivity|].
  destruct (find_node s id) as [nd|]; [|reflexivity].
  destruct (cget c code_not [RN id]); [reflexivity|].
  destruct (nchildren nd) as [|ft [|fe [|z r]]]; try reflexivity.
  apply (join2_seq _ _ (fun s' c' => apply_not C cget cadd n s' c' (eref ft))
                       (fun s' c' => apply_not C cget cadd n s' c' (eref fe))); intros; apply IH.
Qed.

Theorem apply_bin_g_seq : forall fuel s c op f g,
  apply_bin_g fresh_id gt C cget cadd fuel SSeq s c op f g = apply_bin gt C cget cadd fuel s c op f g.
Proof.
  induction fuel as [|n IH]; intros s c op f g; [reflexivity|].
  rewrite apply_bin_g_S, apply_bin_S. destruct (terminal_bin gt s op f g) as [r|r|o a b|]; try reflexivity.
  - apply apply_not_g_seq.
  - destruct (cget c (op_code o) [a; b]); [reflexivity|].
    destruct (inner s f) as [fn|]; [|reflexivity]. destruct (inner s g) as [gn|]; [|reflexivity].
    cbv zeta. destruct (cof2 f fn _) as [[ft fe]|]; [|reflexivity].
    destruct (cof2 g gn _) as [[gt' ge]|]; [|reflexivity].
    apply (join2_seq _ _ (fun s' c' => apply_bin gt C cget cadd n s' c' op ft gt')
                         (fun s' c' => apply_bin gt C cget cadd n s' c' op fe ge)); intros; apply IH.
Qed.

Theorem apply_ite_g_seq : forall fuel s c f g h,
  apply_ite_g fresh_id gt C cget cadd fuel SSeq s c f g h = apply_ite gt C cget cadd fuel s c f g h.
Proof.
  induction fuel as [|n IH]; intros s c f g h; [reflexivity|].
  rewrite apply_ite_g_S, apply_ite_S.
  destruct (ref_eqb g h); [reflexivity|].
  destruct (ref_eqb f g); [apply apply_bin_g_seq|].
  destruct (ref_eqb f h); [apply apply_bin_g_seq|].
  destruct (view s f) as [[|bf]|]; try reflexivity.
  destruct (view s g) as [[|[]]|], (view s h) as [[|[]]|]; try reflexivity;
    try apply apply_bin_g_seq; try apply apply_not_g_seq.
  destruct (cget c code_ite [f; g; h]); [reflexivity|].
  destruct (inner s f) as [fn|]; [|reflexivity]. destruct (inner s g) as [gn|]; [|reflexivity].
  destruct (inner s h) as [hn|]; [|reflexivity].
  cbv zeta. destruct (cof2 f fn _) as [[ft fe]|]; [|reflexivity].
  destruct (cof2 g gn _) as [[gt' ge]|]; [|reflexivity].
  destruct (cof2 h hn _) as [[ht he]|]; [|reflexivity].
  apply (join2_seq _ _ (fun s' c' => apply_ite gt C cget cadd n s' c' ft gt' ht)
                       (fun s' c' => apply_ite gt C cget cadd n s' c' fe ge he)); intros; apply IH.
Qed.

End Seq.
