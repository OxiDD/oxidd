(** * C20x (a): ZBDD apply cache enabled / disabled / any other cache - identical results

    Two runs of the same ZBDD operation on the same table, with the same node
    store and the same schedule, but with two arbitrary (possibly different)
    lossy cache implementations holding arbitrary correct contents, and two
    arbitrary edge orders [gt1] / [gt2] (so the two runs of a commutative
    operator may recurse with swapped operand pairs): the resulting TABLES are
    identical and the returned EDGES are identical ([z*_g_agree]).  This part:
    union / intersection / difference, negation, symmetric difference; the
    building blocks [zjoin_agree], [zlo_mk_agree], [zfin_agree].
    if-then-else and the eight operators: DD/ConfigZbddCacheIte.v. *)

From Coq Require Import List NArith PArith Bool Arith Lia FMapPositive.
From OxiVerif Require Import DD.Table DD.TableExtra DD.TableProofs DD.Sem DD.Build DD.BuildProofs DD.PickInsert
  DD.Apply DD.ApplyProofs DD.CanonZbdd DD.FamSpec DD.FamSpecProofs DD.ZbddOps DD.ZbddOpsProofs
  DD.ZbddSubsetProofs DD.ZbddSoundProofs DD.ZbddVars DD.ZbddVarsProofs DD.ZbddBool DD.ZbddBoolProofs
  DD.ZbddXorProofs DD.ZbddIteProofs
  DD.ConfigApply DD.ConfigProofs DD.ConfigInsert DD.ConfigZbdd DD.ConfigZbddProofs.
Import ListNotations.

Section CacheExact.
Variable alloc : snap -> positive.
Hypothesis Halloc : alloc_ok alloc.
Variables gt1 gt2 : ref -> ref -> bool.
Variables C1 C2 : Type.
Variable cget1 : C1 -> N -> list ref -> list nat -> option ref.
Variable cadd1 : C1 -> N -> list ref -> list nat -> ref -> C1.
Variable cget2 : C2 -> N -> list ref -> list nat -> option ref.
Variable cadd2 : C2 -> N -> list ref -> list nat -> ref -> C2.
Hypothesis L1 : zlossy C1 cget1 cadd1.
Hypothesis L2 : zlossy C2 cget2 cadd2.

Notation COKB1 := (ZCacheOKB C1 cget1).
Notation COKB2 := (ZCacheOKB C2 cget2).
Notation RST1 := (zres_st cget1).
Notation RST2 := (zres_st cget2).

(** both runs succeed, with the same table and the same edge (the caches may differ) *)
Definition zsame_out (r1 : option (snap * C1 * ref)) (r2 : option (snap * C2 * ref)) : Prop :=
  match r1, r2 with
  | Some (s1, _, a), Some (s2, _, b) => s1 = s2 /\ a = b
  | _, _ => False
  end.

Lemma zunchanged_agree_l : forall s res2 R c1' r1,
  RST1 s (Some (s, c1', r1)) R -> RST2 s res2 R -> zsame_out (Some (s, c1', r1)) res2.
Proof.
  intros s res2 R c1' r1 (sa & ca & ra & Ea & _ & _ & _ & Da & _) (sb & cb & rb & Eb & _ & _ & _ & _ & Sb).
  inversion Ea; subst sa ca ra. rewrite Eb. destruct (Sb r1 Da) as [-> ->]. simpl. auto.
Qed.

Lemma zunchanged_agree_r : forall s res1 R c2' r2,
  RST1 s res1 R -> RST2 s (Some (s, c2', r2)) R -> zsame_out res1 (Some (s, c2', r2)).
Proof.
  intros s res1 R c2' r2 (sa & ca & ra & Ea & _ & _ & _ & _ & Sa) (sb & cb & rb & Eb & _ & _ & _ & Db & _).
  inversion Eb; subst sb cb rb. rewrite Ea. destruct (Sa r2 Db) as [-> ->]. simpl. auto.
Qed.

(** two closures that agree in every later state *)
Definition zruns_agree (s : snap)
  (run1 : sched -> snap -> C1 -> option (snap * C1 * ref))
  (run2 : sched -> snap -> C2 -> option (snap * C2 * ref)) : Prop :=
  forall x s' a b, ZbddOK s' -> extends s s' -> COKB1 s' a -> COKB2 s' b ->
    zsame_out (run1 x s' a) (run2 x s' b).

Lemma zfork2_agree : forall x runT1 runE1 runT2 runE2 s c1 c2 P0 P1,
  ZbddOK s -> COKB1 s c1 -> COKB2 s c2 ->
  zrun_ok cget1 s runT1 P0 -> zrun_ok cget2 s runT2 P0 ->
  zrun_ok cget1 s runE1 P1 -> zrun_ok cget2 s runE2 P1 ->
  zruns_agree s runT1 runT2 -> zruns_agree s runE1 runE2 ->
  match fork2 C1 x runT1 runE1 s c1, fork2 C2 x runT2 runE2 s c2 with
  | Some (sa, _, ta, ea), Some (sb, _, tb, eb) => sa = sb /\ ta = tb /\ ea = eb
  | _, _ => False
  end.
Proof.
  exact (gfork2_agree ref _ ZbddOK ZDen C1 C2 COKB1 COKB2 (zcacheokb_extends C1 cget1) (zcacheokb_extends C2 cget2)).
Qed.

Lemma zjoin_agree : forall x runT1 runE1 runT2 runE2 s c1 c2 P0 P1 lvl,
  ZbddOK s -> COKB1 s c1 -> COKB2 s c2 ->
  zrun_ok cget1 s runT1 P0 -> zrun_ok cget2 s runT2 P0 ->
  zrun_ok cget1 s runE1 P1 -> zrun_ok cget2 s runE2 P1 ->
  zruns_agree s runT1 runT2 -> zruns_agree s runE1 runE2 ->
  zsame_out (zjoin alloc C1 x runT1 runE1 s c1 lvl) (zjoin alloc C2 x runT2 runE2 s c2 lvl).
Proof.
  intros x runT1 runE1 runT2 runE2 s c1 c2 P0 P1 lvl B O1 O2 HT1 HT2 HE1 HE2 AT AE.
  pose proof (zfork2_agree x runT1 runE1 runT2 runE2 s c1 c2 P0 P1 B O1 O2 HT1 HT2 HE1 HE2 AT AE) as A.
  unfold zjoin.
  destruct (fork2 C1 x runT1 runE1 s c1) as [[[[sa ca] ta] ea]|]; [|contradiction].
  destruct (fork2 C2 x runT2 runE2 s c2) as [[[[sb cb] tb] eb]|]; [|contradiction].
  destruct A as [<- [<- <-]].
  destruct (zmk_node_a alloc sa lvl ta ea) as [s3 h]. simpl. auto.
Qed.

Lemma zlo_mk_agree : forall res1 res2 lvl hi, zsame_out res1 res2 ->
  zsame_out (zlo_mk alloc C1 res1 lvl hi) (zlo_mk alloc C2 res2 lvl hi).
Proof.
  intros [[[s1 c1] a]|] [[[s2 c2] b]|] lvl hi; simpl; try contradiction. intros [-> ->].
  destruct (zmk_node_a alloc s2 lvl hi b) as [s3 h]. simpl. auto.
Qed.

Lemma zfin_agree : forall res1 res2 code1 args1 code2 args2, zsame_out res1 res2 ->
  zsame_out (zfin C1 cadd1 res1 code1 args1) (zfin C2 cadd2 res2 code2 args2).
Proof.
  intros [[[s1 c1] a]|] [[[s2 c2] b]|] code1 args1 code2 args2; simpl; try contradiction. auto.
Qed.

Lemma zplan_run_agree : forall K (call1 : K -> sched -> snap -> C1 -> option (snap * C1 * ref))
    (call2 : K -> sched -> snap -> C2 -> option (snap * C2 * ref)) (den : K -> fpred -> Prop) x s c1 c2 L p X,
  ZbddOK s -> COKB1 s c1 -> COKB2 s c2 ->
  (forall k Y, den k Y -> zrun_ok cget1 s (call1 k) Y) -> (forall k Y, den k Y -> zrun_ok cget2 s (call2 k) Y) ->
  (forall k Y, den k Y -> zruns_agree s (call1 k) (call2 k)) -> zplan_den K den s L p X ->
  zsame_out (zplan_run alloc C1 K call1 x s c1 p) (zplan_run alloc C2 K call2 x s c2 p).
Proof.
  intros K call1 call2 den x s c1 c2 L p X B O1 O2 Run1 Run2 Ag Dp.
  destruct p as [k|k lv hi|kh kl lv]; cbn [zplan_den zplan_run] in Dp |- *.
  - apply (Ag k X Dp x s c1 c2 B (extends_refl s) O1 O2).
  - destruct Dp as (_ & _ & HI & LO & _ & _ & _ & _ & Dk & _). apply zlo_mk_agree.
    apply (Ag k LO Dk x s c1 c2 B (extends_refl s) O1 O2).
  - destruct Dp as (_ & _ & HI & LO & _ & _ & Dh & Dl & _).
    apply (zjoin_agree x _ _ _ _ s c1 c2 HI LO); eauto.
Qed.

Local Ltac dead R := let EE := fresh "EE" in destruct R as (? & ? & ? & EE & _); discriminate EE.

Lemma zsw_refl : forall comm f g, zsw comm f g f g.
Proof. intros comm f g. left. auto. Qed.

Lemma zsw_flip : forall comm f g f' g', zsw comm f g f' g' -> zsw comm g f g' f'.
Proof. intros comm f g f' g' [[-> ->]|[Hc [-> ->]]]; [left | right]; auto. Qed.

Lemma zsw_swap_r : forall comm f g f' g', comm = true -> zsw comm f g f' g' -> zsw comm f g g' f'.
Proof. intros comm f g f' g' Hc [[-> ->]|[_ [-> ->]]]; [right | left]; auto. Qed.

Section BinOp.
Variable sem : fpred -> fpred -> fpred.
Variables kl kr comm : bool.
Variable code : N.
Hypothesis HB : zbinop_ok sem kl kr comm code.

Lemma zcore_agree : forall rec1 rec2 n,
  zbin_ok_at cget1 sem rec1 n -> zbin_ok_at cget2 sem rec2 n ->
  (forall x s a b f g f' g' P Q, ZbddOK s -> COKB1 s a -> COKB2 s b -> ZDen s f P -> ZDen s g Q ->
     zsw comm f g f' g' -> nlevels s - Nat.min (rlevel s f) (rlevel s g) < n ->
     zsame_out (rec1 f g x s a) (rec2 f' g' x s b)) ->
  forall x s c1 c2 f g f' g' P Q,
    ZbddOK s -> COKB1 s c1 -> COKB2 s c2 -> ZDen s f P -> ZDen s g Q -> zsw comm f g f' g' ->
    f <> g -> (forall t, f = RT t -> term_val s t = Some 1%N) -> (forall t, g = RT t -> term_val s t = Some 1%N) ->
    nlevels s - Nat.min (rlevel s f) (rlevel s g) < S n ->
    zsame_out (zcore alloc C1 cget1 cadd1 rec1 kl kr code x s c1 f g)
              (zcore alloc C2 cget2 cadd2 rec2 kl kr code x s c2 f' g').
Proof.
  intros rec1 rec2 n Hok1 Hok2 Hag x s c1 c2 f g f' g' P Q B O1 O2 DF DG Hsw Hne Hf1 Hg1 Hfuel.
  pose proof (zcore_ok alloc Halloc C1 cget1 cadd1 L1 sem kl kr comm code HB rec1 n x s c1 f g P Q
                Hok1 B O1 DF DG Hne Hf1 Hg1 Hfuel) as R1.
  assert (R2 : RST2 s (zcore alloc C2 cget2 cadd2 rec2 kl kr code x s c2 f' g') (sem P Q)).
  { destruct Hsw as [[-> ->]|[Hcm [-> ->]]].
    - apply (zcore_ok alloc Halloc C2 cget2 cadd2 L2 sem kl kr comm code HB rec2 n); auto.
    - exact (zcore_norm_ok alloc Halloc C2 cget2 cadd2 L2 sem kl kr comm code HB rec2 true n x s c2 f g P Q
               Hok2 B O2 DF DG Hne Hf1 Hg1 Hfuel (fun _ => Hcm)). }
  unfold zcore in *.
  destruct (cget1 c1 code [f; g] []) eqn:G1; [eapply zunchanged_agree_l; eauto|].
  destruct (cget2 c2 code [f'; g'] []) eqn:G2; [eapply zunchanged_agree_r; eauto|].
  clear R1 R2.
  destruct (zget_total s f (zden_ok _ _ _ DF)) as [vf Evf].
  destruct (zget_total s g (zden_ok _ _ _ DG)) as [vg Evg].
  destruct (zbin_plan_ex sem kl kr comm code HB s f g vf vg P Q B DF DG Evf Evg Hne Hf1 Hg1) as (p & Dp & Ep & Es).
  set (L := Nat.min (rlevel s f) (rlevel s g)) in *.
  assert (HnL : nlevels s - L <= n) by lia.
  pose proof (fun k Y => zcall2_run_ok C1 cget1 sem rec1 n s L k Y Hok1 B HnL) as Run1.
  pose proof (fun k Y => zcall2_run_ok C2 cget2 sem rec2 n s L k Y Hok2 B HnL) as Run2.
  assert (Ag : forall a b a' b' Y, zsw comm a b a' b' -> zcall2_den sem s L (a, b) Y ->
            zruns_agree s (rec1 a b) (rec2 a' b')).
  { intros a b a' b' Y Hs (PA & PB & Da & Db & La & Lb & _) x' s' ca cb B' X' Oa Ob. simpl in Da, Db, La, Lb.
    apply (Hag x' s' ca cb a b a' b' PA PB B' Oa Ob (zden_extends s s' _ _ B X' Da) (zden_extends s s' _ _ B X' Db) Hs).
    rewrite (ext_nlevels _ _ X'), (ext_rlevel _ _ _ X' (zden_ok _ _ _ Da)), (ext_rlevel _ _ _ X' (zden_ok _ _ _ Db)).
    pose proof (rlevel_le s (zo_wf s B) a). lia. }
  destruct Hsw as [[-> ->]|[Hcm [-> ->]]]; rewrite Evf, Evg; apply zfin_agree.
  - rewrite !Ep. apply (zplan_run_agree _ _ _ _ x s c1 c2 L p _ B O1 O2 Run1 Run2) with (2 := Dp).
    intros [a b] Y Dk. apply (Ag a b a b Y (zsw_refl _ _ _) Dk).
  - (* the second run has the operands swapped and takes the mirrored branch *)
    rewrite Ep, (Es (zb_keep _ _ _ _ _ HB Hcm)).
    apply (zplan_run_agree _ _ _ _ x s c1 c2 L p _ B O1 O2 Run1) with (3 := Dp).
    + intros [a b] Y (PA & PB & Da & Db & La & Lb & HY). apply (Run2 (b, a) Y).
      exists PB, PA. repeat (split; [assumption|]). apply (peq_trans _ _ _ HY). apply (zb_comm _ _ _ _ _ HB Hcm).
    + intros [a b] Y Dk. apply (Ag a b b a Y (or_intror (conj Hcm (conj eq_refl eq_refl))) Dk).
Qed.

Lemma zcore_norm_agree : forall rec1 rec2 (sw1 sw2 : bool) n,
  zbin_ok_at cget1 sem rec1 n -> zbin_ok_at cget2 sem rec2 n ->
  (forall x s a b f g f' g' P Q, ZbddOK s -> COKB1 s a -> COKB2 s b -> ZDen s f P -> ZDen s g Q ->
     zsw comm f g f' g' -> nlevels s - Nat.min (rlevel s f) (rlevel s g) < n ->
     zsame_out (rec1 f g x s a) (rec2 f' g' x s b)) ->
  forall x s c1 c2 f g f' g' P Q,
    ZbddOK s -> COKB1 s c1 -> COKB2 s c2 -> ZDen s f P -> ZDen s g Q -> zsw comm f g f' g' ->
    f <> g -> (forall t, f = RT t -> term_val s t = Some 1%N) -> (forall t, g = RT t -> term_val s t = Some 1%N) ->
    nlevels s - Nat.min (rlevel s f) (rlevel s g) < S n ->
    (sw1 = true -> comm = true) -> (sw2 = true -> comm = true) ->
    zsame_out (let '(f, g) := if sw1 then (g, f) else (f, g) in zcore alloc C1 cget1 cadd1 rec1 kl kr code x s c1 f g)
              (let '(f', g') := if sw2 then (g', f') else (f', g') in
               zcore alloc C2 cget2 cadd2 rec2 kl kr code x s c2 f' g').
Proof.
  intros rec1 rec2 sw1 sw2 n Hok1 Hok2 Hag x s c1 c2 f g f' g' P Q B O1 O2 DF DG Hsw Hne Hf1 Hg1 Hfuel H1 H2.
  pose proof (zcore_agree rec1 rec2 n Hok1 Hok2 Hag x s c1 c2) as HA.
  destruct sw1, sw2.
  - apply (HA g f g' f' Q P); auto; [apply zsw_flip; exact Hsw | rewrite Nat.min_comm; exact Hfuel].
  - apply (HA g f f' g' Q P); auto; [apply zsw_flip, zsw_swap_r; auto | rewrite Nat.min_comm; exact Hfuel].
  - apply (HA f g g' f' P Q); auto. apply zsw_swap_r; auto.
  - apply (HA f g f' g' P Q); auto.
Qed.

End BinOp.

Theorem zapply_g_agree : forall op fuel x s c1 c2 f g f' g' P Q,
  ZbddOK s -> COKB1 s c1 -> COKB2 s c2 -> ZDen s f P -> ZDen s g Q -> zsw (zcommutes op) f g f' g' ->
  nlevels s - Nat.min (rlevel s f) (rlevel s g) < fuel ->
  zsame_out (zapply_g alloc gt1 C1 cget1 cadd1 fuel x s c1 op f g)
            (zapply_g alloc gt2 C2 cget2 cadd2 fuel x s c2 op f' g').
Proof.
  intros op. induction fuel as [|n IH]; intros x s c1 c2 f g f' g' P Q B O1 O2 DF DG Hsw Hfuel; [lia|].
  pose proof (zapply_g_ok alloc Halloc gt1 C1 cget1 cadd1 L1 op (S n) x s c1 f g P Q B O1 DF DG Hfuel) as R1.
  assert (R2 : RST2 s (zapply_g alloc gt2 C2 cget2 cadd2 (S n) x s c2 op f' g') (pbin op P Q)).
  { destruct Hsw as [[-> ->]|[Hcm [-> ->]]].
    - apply (zapply_g_ok alloc Halloc gt2 C2 cget2 cadd2 L2 op (S n) x s c2 f g P Q B O2 DF DG Hfuel).
    - apply (zres_st_ext C2 cget2 s _ (pbin op Q P)); [apply pbin_comm; exact Hcm|].
      apply (zapply_g_ok alloc Halloc gt2 C2 cget2 cadd2 L2 op (S n) x s c2 g f Q P B O2 DG DF). lia. }
  rewrite (zapply_g_S alloc gt1 C1) in *. rewrite (zapply_g_S alloc gt2 C2) in *.
  (* the terminal cases: whichever run takes one returns an unchanged table *)
  pose proof (zterminal_ok s op f g P Q B DF DG) as T1.
  destruct (zterminal s op f g) as [|r|]; [destruct T1 | eapply zunchanged_agree_l; eauto |].
  destruct T1 as [Hne [Hf1 Hg1]].
  destruct (zterminal s op f' g') as [|r|]; [dead R2 | eapply zunchanged_agree_r; eauto |].
  apply (zcore_norm_agree _ _ _ _ _ (pbin_binop op) _ _ _ _ n
           (fun x s c f g P Q => zapply_g_ok alloc Halloc gt1 C1 cget1 cadd1 L1 op n x s c f g P Q)
           (fun x s c f g P Q => zapply_g_ok alloc Halloc gt2 C2 cget2 cadd2 L2 op n x s c f g P Q)
           IH x s c1 c2 f g f' g' P Q); auto;
    intros Hs; apply andb_true_iff in Hs; apply Hs.
Qed.

(** ** Negation *)

Theorem zapply_not_g_agree : forall fuel x s c1 c2 f P,
  ZbddOK s -> ZChainOK s -> COKB1 s c1 -> COKB2 s c2 -> ZDen s f P -> nlevels s < fuel ->
  zsame_out (zapply_not_g alloc gt1 C1 cget1 cadd1 fuel x s c1 f)
            (zapply_not_g alloc gt2 C2 cget2 cadd2 fuel x s c2 f).
Proof.
  intros fuel x s c1 c2 f P B Hc O1 O2 D Hf. unfold zapply_not_g.
  destruct (ztaut_total s 0 Hc) as [t Et]. rewrite Et.
  pose proof (ztaut_den s 0 t B Et) as Dt.
  apply (zapply_g_agree ZDiff fuel x s c1 c2 t f t f _ P B O1 O2 Dt D (zsw_refl _ _ _)). lia.
Qed.

(** ** Symmetric difference *)

Theorem zsymm_g_agree : forall fuel x s c1 c2 f g f' g' P Q,
  ZbddOK s -> COKB1 s c1 -> COKB2 s c2 -> ZDen s f P -> ZDen s g Q -> zsw true f g f' g' ->
  nlevels s - Nat.min (rlevel s f) (rlevel s g) < fuel ->
  zsame_out (zsymm_g alloc gt1 C1 cget1 cadd1 fuel x s c1 f g)
            (zsymm_g alloc gt2 C2 cget2 cadd2 fuel x s c2 f' g').
Proof.
  induction fuel as [|n IH]; intros x s c1 c2 f g f' g' P Q B O1 O2 DF DG Hsw Hfuel; [lia|].
  pose proof (zsymm_g_ok alloc Halloc gt1 C1 cget1 cadd1 L1 (S n) x s c1 f g P Q B O1 DF DG Hfuel) as R1.
  assert (R2 : RST2 s (zsymm_g alloc gt2 C2 cget2 cadd2 (S n) x s c2 f' g') (pxor P Q)).
  { destruct Hsw as [[-> ->]|[_ [-> ->]]].
    - apply (zsymm_g_ok alloc Halloc gt2 C2 cget2 cadd2 L2 (S n) x s c2 f g P Q B O2 DF DG Hfuel).
    - apply (zres_st_ext C2 cget2 s _ (pxor Q P)); [apply pxor_comm|].
      apply (zsymm_g_ok alloc Halloc gt2 C2 cget2 cadd2 L2 (S n) x s c2 g f Q P B O2 DG DF). lia. }
  rewrite (zsymm_g_S alloc gt1 C1) in *. rewrite (zsymm_g_S alloc gt2 C2) in *.
  destruct (zempty_spec s B) as [te [Ee Et]]. rewrite Ee in *.
  (* the terminal cases: whichever run takes one returns an unchanged table *)
  destruct (ref_eqb f g) eqn:E1; [eapply zunchanged_agree_l; eauto|].
  destruct (ref_eqb f (RT te)) eqn:E2; [eapply zunchanged_agree_l; eauto|].
  destruct (ref_eqb g (RT te)) eqn:E3; [eapply zunchanged_agree_l; eauto|].
  destruct (ref_eqb f' g'); [eapply zunchanged_agree_r; eauto|].
  destruct (ref_eqb f' (RT te)); [eapply zunchanged_agree_r; eauto|].
  destruct (ref_eqb g' (RT te)); [eapply zunchanged_agree_r; eauto|].
  apply ref_eqb_false in E1. apply ref_eqb_false in E2. apply ref_eqb_false in E3.
  apply (zcore_norm_agree _ _ _ _ _ pxor_binop _ _ _ _ n
           (fun x s c f g P Q => zsymm_g_ok alloc Halloc gt1 C1 cget1 cadd1 L1 n x s c f g P Q)
           (fun x s c f g P Q => zsymm_g_ok alloc Halloc gt2 C2 cget2 cadd2 L2 n x s c f g P Q)
           IH x s c1 c2 f g f' g' P Q); auto.
  - intros t ->. apply (not_empty_base s te t B Et (zden_ok _ _ _ DF) E2).
  - intros t ->. apply (not_empty_base s te t B Et (zden_ok _ _ _ DG) E3).
Qed.

End CacheExact.
