(** * C20x (a): ZBDD apply cache / operand order exactness, part 2: if-then-else and the eight operators

    [zapply_ite_g_agree], [zapply_op_g_agree]: same table, node store and
    schedule, ANY two lossy caches with correct contents and ANY two operand
    orders: identical result table and identical edge.  [nand] / [nor] /
    [equiv] are two recursions; the statement holds for them by composition
    (the second recursion of both runs starts in the same table).
    [z*_g_cache_exact]: the same for arbitrary existing operands and the
    standard fuel. *)

From Coq Require Import List NArith PArith Bool Arith Lia FMapPositive.
From OxiVerif Require Import DD.Table DD.TableExtra DD.TableProofs DD.Sem DD.Build DD.BuildProofs DD.PickInsert
  DD.Apply DD.ApplyProofs DD.CanonZbdd DD.FamSpec DD.FamSpecProofs DD.ZbddOps DD.ZbddOpsProofs
  DD.ZbddSubsetProofs DD.ZbddSoundProofs DD.ZbddVars DD.ZbddVarsProofs DD.ZbddBool DD.ZbddBoolProofs
  DD.ZbddXorProofs DD.ZbddIteProofs
  DD.ConfigApply DD.ConfigProofs DD.ConfigInsert DD.ConfigZbdd DD.ConfigZbddProofs DD.ConfigZbddIte
  DD.ConfigZbddCache.
Import ListNotations.

Section CacheExactIte.
Variable alloc : snap -> positive.
Hypothesis Halloc : alloc_ok alloc.
Variables gt1 gt2 : ref -> ref -> bool.
Variables C1 C2 : Type.
Variable cget1 : C1 -> N -> list ref -> list nat -> option ref.
Variable cadd1 : C1 -> N -> list ref -> list nat -> ref -> C1.
Variable cget2 : C2 -> N -> list ref -> list nat -> option ref.
Variable cadd2 : C2 -> N -> list ref -> list nat -> ref -> C2.
Hypothesis L1 : zlossy C1 cget1 cadd1.
Hypothesis L2 : zlossy C2 cget2 cadd2.

Notation COKB1 := (ZCacheOKB C1 cget1).
Notation COKB2 := (ZCacheOKB C2 cget2).
Notation RST1 := (zres_st cget1).
Notation RST2 := (zres_st cget2).
Notation SAME := (zsame_out C1 C2).

(** if the result family already has an edge, both runs return it and change nothing *)
Lemma zsame_of_existing : forall s res1 res2 R r0,
  RST1 s res1 R -> RST2 s res2 R -> ZDen s r0 R -> SAME res1 res2.
Proof.
  intros s res1 res2 R r0 (s1 & c1' & r1 & E1 & _ & _ & _ & _ & S1) (s2 & c2' & r2 & E2 & _ & _ & _ & _ & S2) D0.
  destruct (S1 r0 D0) as [-> ->]. destruct (S2 r0 D0) as [-> ->]. rewrite E1, E2. simpl. auto.
Qed.

Notation ite1 n := (fun a b d x s c => zapply_ite_g alloc gt1 C1 cget1 cadd1 n x s c a b d).
Notation ite2 n := (fun a b d x s c => zapply_ite_g alloc gt2 C2 cget2 cadd2 n x s c a b d).
Notation bin1 n := (fun op a b x s c => zapply_g alloc gt1 C1 cget1 cadd1 n x s c op a b).
Notation bin2 n := (fun op a b x s c => zapply_g alloc gt2 C2 cget2 cadd2 n x s c op a b).

Definition zite_agree_at (n : nat) : Prop := forall x s c1 c2 f g h P Q R,
  ZbddOK s -> ZChainOK s -> COKB1 s c1 -> COKB2 s c2 -> ZDen s f P -> ZDen s g Q -> ZDen s h R ->
  nlevels s - Nat.min (rlevel s f) (Nat.min (rlevel s g) (rlevel s h)) < n ->
  SAME (zapply_ite_g alloc gt1 C1 cget1 cadd1 n x s c1 f g h)
       (zapply_ite_g alloc gt2 C2 cget2 cadd2 n x s c2 f g h).

Lemma zcall_run_agree : forall n s L k X,
  zite_agree_at n -> ZbddOK s -> ZChainOK s -> nlevels s - L < S n -> zcall_den s L k X ->
  zruns_agree C1 C2 cget1 cget2 s (zcall_run C1 (ite1 n) (bin1 (S n)) k) (zcall_run C2 (ite2 n) (bin2 (S n)) k).
Proof.
  intros n s L k X IH B Hch Hn Dk x' s' ca cb B' X' Oa Ob. pose proof (zo_wf s B) as H.
  destruct k as [op a b|a b d]; cbn [zcall_den zcall_run] in Dk |- *.
  - destruct Dk as (PA & PB & Da & Db & La & Lb & _). simpl in Da, Db, La, Lb.
    apply (zapply_g_agree alloc Halloc gt1 gt2 C1 C2 cget1 cadd1 cget2 cadd2 L1 L2 op (S n) x' s' ca cb a b a b PA PB
             B' Oa Ob (zden_extends s s' _ _ B X' Da) (zden_extends s s' _ _ B X' Db) (zsw_refl _ _ _)).
    rewrite (ext_nlevels _ _ X'), (ext_rlevel _ _ _ X' (zden_ok _ _ _ Da)), (ext_rlevel _ _ _ X' (zden_ok _ _ _ Db)). lia.
  - destruct Dk as (PA & PB & PD & Da & Db & Dd & La & Lb & Ld & _).
    apply (IH x' s' ca cb a b d PA PB PD B' (zchain_extends s s' B B' X' Hch) Oa Ob
             (zden_extends s s' _ _ B X' Da) (zden_extends s s' _ _ B X' Db) (zden_extends s s' _ _ B X' Dd)).
    rewrite (ext_nlevels _ _ X'), (ext_rlevel _ _ _ X' (zden_ok _ _ _ Da)),
      (ext_rlevel _ _ _ X' (zden_ok _ _ _ Db)), (ext_rlevel _ _ _ X' (zden_ok _ _ _ Dd)).
    pose proof (rlevel_le s H a). lia.
Qed.

Theorem zapply_ite_g_agree : forall fuel x s c1 c2 f g h P Q R,
  ZbddOK s -> ZChainOK s -> COKB1 s c1 -> COKB2 s c2 -> ZDen s f P -> ZDen s g Q -> ZDen s h R ->
  nlevels s - Nat.min (rlevel s f) (Nat.min (rlevel s g) (rlevel s h)) < fuel ->
  SAME (zapply_ite_g alloc gt1 C1 cget1 cadd1 fuel x s c1 f g h)
       (zapply_ite_g alloc gt2 C2 cget2 cadd2 fuel x s c2 f g h).
Proof.
  induction fuel as [|n IH]; intros x s c1 c2 f g h P Q R B Hch O1 O2 DF DG DH Hfuel; [lia|].
  pose proof (zapply_ite_g_ok alloc Halloc gt1 C1 cget1 cadd1 L1 (S n) x s c1 f g h P Q R B Hch O1 DF DG DH Hfuel) as R1.
  pose proof (zapply_ite_g_ok alloc Halloc gt2 C2 cget2 cadd2 L2 (S n) x s c2 f g h P Q R B Hch O2 DF DG DH Hfuel) as R2.
  (* a cached result is an existing edge of the result family *)
  destruct (cget1 c1 zcode_ite [f; g; h] []) as [r0|] eqn:G1.
  { apply (zsame_of_existing s _ _ (pite P Q R) r0 R1 R2). apply (zite_hit s f g h P Q R r0 DF DG DH). apply (O1 _ _ _ _ G1). }
  destruct (cget2 c2 zcode_ite [f; g; h] []) as [r0|] eqn:G2.
  { apply (zsame_of_existing s _ _ (pite P Q R) r0 R1 R2). apply (zite_hit s f g h P Q R r0 DF DG DH). apply (O2 _ _ _ _ G2). }
  clear R1 R2.
  rewrite (zapply_ite_g_S alloc gt1 C1), (zapply_ite_g_S alloc gt2 C2).
  pose proof (zo_wf s B) as H.
  pose proof (rlevel_le s H f) as LeF. pose proof (rlevel_le s H g) as LeG. pose proof (rlevel_le s H h) as LeH.
  (* the nested union / intersection / difference calls *)
  assert (AB : forall op a b PA PB, ZDen s a PA -> ZDen s b PB ->
            nlevels s - Nat.min (rlevel s a) (rlevel s b) < S n ->
            SAME (zapply_g alloc gt1 C1 cget1 cadd1 (S n) x s c1 op a b)
                 (zapply_g alloc gt2 C2 cget2 cadd2 (S n) x s c2 op a b)).
  { intros op a b PA PB Da Db Hn.
    apply (zapply_g_agree alloc Halloc gt1 gt2 C1 C2 cget1 cadd1 cget2 cadd2 L1 L2 op (S n) x s c1 c2 a b a b PA PB
             B O1 O2 Da Db (zsw_refl _ _ _) Hn). }
  destruct (ref_eqb g h) eqn:E1; [split; reflexivity|].
  destruct (ref_eqb f g); [apply (AB ZUnion f h P R); auto; lia|].
  destruct (ref_eqb f h); [apply (AB ZIntsec f g P Q); auto; lia|].
  apply ref_eqb_false in E1.
  destruct (zget_total s f (zden_ok _ _ _ DF)) as [vf Evf]. rewrite Evf.
  destruct (is_empty_b s f); [split; reflexivity|].
  destruct (zget_total s g (zden_ok _ _ _ DG)) as [vg Evg]. rewrite Evg.
  destruct (is_empty_b s g) eqn:Eg; [apply (AB ZDiff h f R P); auto; lia|].
  destruct (zget_total s h (zden_ok _ _ _ DH)) as [vh Evh]. rewrite Evh.
  destruct (is_empty_b s h) eqn:Eh; [apply (AB ZIntsec f g P Q); auto; lia|].
  rewrite ztaut_opt_olev.
  destruct (ztaut_total s (olev (nlevels s) (lmin (vlevel vf) (lmin (vlevel vg) (vlevel vh)))) Hch) as [ta Eta].
  rewrite Eta.
  destruct (ref_eqb f ta); [split; reflexivity|].
  destruct (ref_eqb g ta); [apply (AB ZUnion f h P R); auto; lia|].
  rewrite G1, G2.
  apply zfin_agree.
  destruct (zite_plan_ex s f g h vf vg vh P Q R B DF DG DH Evf Evg Evh E1 Eg Eh) as (p & Dp & Ep).
  rewrite !Ep. clear Ep AB Eta ta.
  set (Lv := Nat.min (rlevel s f) (Nat.min (rlevel s g) (rlevel s h))) in *.
  pose proof (fun k Y => zcall_run_ok alloc Halloc gt1 C1 cget1 cadd1 L1 n s Lv k Y
                (zapply_ite_g_ok alloc Halloc gt1 C1 cget1 cadd1 L1 n) B Hch Hfuel) as Run1.
  pose proof (fun k Y => zcall_run_ok alloc Halloc gt2 C2 cget2 cadd2 L2 n s Lv k Y
                (zapply_ite_g_ok alloc Halloc gt2 C2 cget2 cadd2 L2 n) B Hch Hfuel) as Run2.
  pose proof (fun k Y => zcall_run_agree n s Lv k Y IH B Hch Hfuel) as Ag.
  apply (zplan_run_agree alloc C1 C2 cget1 cget2 zcall _ _ (zcall_den s Lv) x s c1 c2 Lv p _ B O1 O2 Run1 Run2 Ag Dp).
Qed.

(** ** The eight operators *)

Lemma zsame_then_not : forall fuel x s res1 res2 R,
  ZbddOK s -> ZChainOK s -> RST1 s res1 R -> RST2 s res2 R -> SAME res1 res2 -> nlevels s < fuel ->
  SAME (match res1 with
        | Some (s1, c1', r) => zapply_not_g alloc gt1 C1 cget1 cadd1 fuel x s1 c1' r
        | None => None
        end)
       (match res2 with
        | Some (s1, c2', r) => zapply_not_g alloc gt2 C2 cget2 cadd2 fuel x s1 c2' r
        | None => None
        end).
Proof.
  intros fuel x s res1 res2 R B Hc (s1 & c1' & r1 & E1 & B1 & X1 & O1 & D1 & _)
         (s2 & c2' & r2 & E2 & _ & _ & O2 & _ & _) A Hf.
  subst res1 res2. simpl in A. destruct A as [<- <-].
  apply (zapply_not_g_agree alloc Halloc gt1 gt2 C1 C2 cget1 cadd1 cget2 cadd2 L1 L2 fuel x s1 c1' c2' r1 R); auto.
  - apply (zchain_extends s s1 B B1 X1 Hc).
  - rewrite (ext_nlevels _ _ X1). exact Hf.
Qed.

Theorem zapply_op_g_agree : forall op fuel x s c1 c2 f g P Q,
  ZbddOK s -> ZChainOK s -> COKB1 s c1 -> COKB2 s c2 -> ZDen s f P -> ZDen s g Q -> nlevels s < fuel ->
  SAME (zapply_op_g alloc gt1 C1 cget1 cadd1 fuel x s c1 op f g)
       (zapply_op_g alloc gt2 C2 cget2 cadd2 fuel x s c2 op f g).
Proof.
  intros op fuel x s c1 c2 f g P Q B Hc O1 O2 DF DG Hf.
  assert (AB : forall o a b PA PB, ZDen s a PA -> ZDen s b PB ->
            SAME (zapply_g alloc gt1 C1 cget1 cadd1 fuel x s c1 o a b)
                 (zapply_g alloc gt2 C2 cget2 cadd2 fuel x s c2 o a b)).
  { intros o a b PA PB Da Db.
    apply (zapply_g_agree alloc Halloc gt1 gt2 C1 C2 cget1 cadd1 cget2 cadd2 L1 L2 o fuel x s c1 c2 a b a b PA PB
             B O1 O2 Da Db (zsw_refl _ _ _)). lia. }
  assert (AX : SAME (zsymm_g alloc gt1 C1 cget1 cadd1 fuel x s c1 f g)
                    (zsymm_g alloc gt2 C2 cget2 cadd2 fuel x s c2 f g)).
  { apply (zsymm_g_agree alloc Halloc gt1 gt2 C1 C2 cget1 cadd1 cget2 cadd2 L1 L2 fuel x s c1 c2 f g f g P Q
             B O1 O2 DF DG (zsw_refl _ _ _)). lia. }
  destruct op; unfold zapply_op_g.
  - apply (AB ZIntsec f g P Q); auto.
  - apply (AB ZUnion f g P Q); auto.
  - exact AX.
  - apply (zsame_then_not fuel x s _ _ (pxor P Q)); auto.
    + apply (zsymm_g_ok alloc Halloc gt1 C1 cget1 cadd1 L1); auto; lia.
    + apply (zsymm_g_ok alloc Halloc gt2 C2 cget2 cadd2 L2); auto; lia.
  - apply (zsame_then_not fuel x s _ _ (pbin ZIntsec P Q)); auto.
    + apply (zapply_g_ok alloc Halloc gt1 C1 cget1 cadd1 L1); auto; lia.
    + apply (zapply_g_ok alloc Halloc gt2 C2 cget2 cadd2 L2); auto; lia.
    + apply (AB ZIntsec f g P Q); auto.
  - apply (zsame_then_not fuel x s _ _ (pbin ZUnion P Q)); auto.
    + apply (zapply_g_ok alloc Halloc gt1 C1 cget1 cadd1 L1); auto; lia.
    + apply (zapply_g_ok alloc Halloc gt2 C2 cget2 cadd2 L2); auto; lia.
    + apply (AB ZUnion f g P Q); auto.
  - destruct (ztaut_total s 0 Hc) as [t Et]. rewrite Et.
    pose proof (ztaut_den s 0 t B Et) as Dt.
    apply (zapply_ite_g_agree fuel x s c1 c2 f g t P Q _ B Hc O1 O2 DF DG Dt). lia.
  - apply (AB ZDiff g f Q P); auto.
Qed.

(** ** The same statements for arbitrary existing operands and the standard fuel *)

Theorem zapply_g_cache_exact : forall op fuel x s c1 c2 f g,
  ZbddOK s -> COKB1 s c1 -> COKB2 s c2 -> ref_ok s f -> ref_ok s g -> S (nlevels s) <= fuel ->
  SAME (zapply_g alloc gt1 C1 cget1 cadd1 fuel x s c1 op f g)
       (zapply_g alloc gt2 C2 cget2 cadd2 fuel x s c2 op f g).
Proof.
  intros op fuel x s c1 c2 f g B O1 O2 Of Og Hf.
  destruct (zden_exists s f B Of) as [P DF]. destruct (zden_exists s g B Og) as [Q DG].
  apply (zapply_g_agree alloc Halloc gt1 gt2 C1 C2 cget1 cadd1 cget2 cadd2 L1 L2 op fuel x s c1 c2 f g f g P Q
           B O1 O2 DF DG (zsw_refl _ _ _)). lia.
Qed.

Theorem zapply_not_g_cache_exact : forall fuel x s c1 c2 f,
  ZbddOK s -> ZChainOK s -> COKB1 s c1 -> COKB2 s c2 -> ref_ok s f -> S (nlevels s) <= fuel ->
  SAME (zapply_not_g alloc gt1 C1 cget1 cadd1 fuel x s c1 f)
       (zapply_not_g alloc gt2 C2 cget2 cadd2 fuel x s c2 f).
Proof.
  intros fuel x s c1 c2 f B Hc O1 O2 Of Hf. destruct (zden_exists s f B Of) as [P DF].
  apply (zapply_not_g_agree alloc Halloc gt1 gt2 C1 C2 cget1 cadd1 cget2 cadd2 L1 L2 fuel x s c1 c2 f P); auto.
Qed.

Theorem zapply_op_g_cache_exact : forall op fuel x s c1 c2 f g,
  ZbddOK s -> ZChainOK s -> COKB1 s c1 -> COKB2 s c2 -> ref_ok s f -> ref_ok s g -> S (nlevels s) <= fuel ->
  SAME (zapply_op_g alloc gt1 C1 cget1 cadd1 fuel x s c1 op f g)
       (zapply_op_g alloc gt2 C2 cget2 cadd2 fuel x s c2 op f g).
Proof.
  intros op fuel x s c1 c2 f g B Hc O1 O2 Of Og Hf.
  destruct (zden_exists s f B Of) as [P DF]. destruct (zden_exists s g B Og) as [Q DG].
  apply (zapply_op_g_agree op fuel x s c1 c2 f g P Q); auto.
Qed.

Theorem zapply_ite_g_cache_exact : forall fuel x s c1 c2 f g h,
  ZbddOK s -> ZChainOK s -> COKB1 s c1 -> COKB2 s c2 -> ref_ok s f -> ref_ok s g -> ref_ok s h ->
  S (nlevels s) <= fuel ->
  SAME (zapply_ite_g alloc gt1 C1 cget1 cadd1 fuel x s c1 f g h)
       (zapply_ite_g alloc gt2 C2 cget2 cadd2 fuel x s c2 f g h).
Proof.
  intros fuel x s c1 c2 f g h B Hc O1 O2 Of Og Oh Hf.
  destruct (zden_exists s f B Of) as [P DF]. destruct (zden_exists s g B Og) as [Q DG].
  destruct (zden_exists s h B Oh) as [R DH].
  apply (zapply_ite_g_agree fuel x s c1 c2 f g h P Q R); auto. lia.
Qed.

End CacheExactIte.
