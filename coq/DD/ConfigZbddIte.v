(** * Correctness of the configuration-generic ZBDD operations (DD/ConfigZbdd.v), part 2

    - [zapply_ite_g_ok]: [apply_ite] (all terminal short-cuts incl. the two
      tautology short-cuts, cache, the six recursion patterns with
      [binary_ternary] / [ternary] joins) for every allocator, operand order,
      lossy cache and schedule, with the strong result predicate [zres_st]
      (an existing edge of the result family is returned, table unchanged);
    - [zapply_op_g_ok]: the eight [BooleanFunction] operators.  [nand], [nor] and
      [equiv] are TWO recursions ([not] after [and] / [or] / [xor]): the first
      one may leave nodes of the intermediate result in the table even when
      the final family already has an edge, so for these three the table is
      not unchanged in general - the returned edge still is the existing one
      ([zres_wk]); for the other five [zres_st] holds;
    - [zapply_ite_g_seq], [zapply_op_g_seq]: the instance [fresh_id] / [SSeq] is
      DD/ZbddBool.v. *)

From Coq Require Import List NArith PArith Bool Arith Lia FMapPositive.
From OxiVerif Require Import DD.Table DD.TableExtra DD.TableProofs DD.Sem DD.Build DD.BuildProofs DD.PickInsert
  DD.Apply DD.ApplyProofs DD.CanonZbdd DD.FamSpec DD.FamSpecProofs DD.ZbddOps DD.ZbddOpsProofs
  DD.ZbddSubsetProofs DD.ZbddSoundProofs DD.ZbddVars DD.ZbddVarsProofs DD.ZbddBool DD.ZbddBoolProofs
  DD.ConfigApply DD.ConfigProofs DD.ConfigInsert DD.ConfigZbdd DD.ConfigZbddProofs.
Import ListNotations.

(** ** The recursion of [apply_ite] below the short-cuts and the cache lookup

    [zite_rec_g] is that part of [zapply_ite_g] with the recursive calls
    abstracted.  Which of its branches is taken depends on the table and the
    three operands only, not on the configuration: [zite_plan_ex] names it as a
    [zplan] over the sub-calls [zcall], with the families they have to compute. *)

Inductive zcall := CBin (op : zop) (a b : ref) | CIte (a b d : ref).

Section IteRec.
Variable alloc : snap -> positive.
Variable C : Type.
Notation run := (sched -> snap -> C -> option (snap * C * ref)).
Variable rec : ref -> ref -> ref -> run.
Variable bin : zop -> ref -> ref -> run.

Definition zite_rec_g (x : sched) (s : snap) (c : C) (fnode gnode hnode : zview) (f g h : ref)
    : option (snap * C * ref) :=
  let flevel := vlevel fnode in
  let glevel := vlevel gnode in
  let hlevel := vlevel hnode in
  let ghlevel := lmin glevel hlevel in
  let level := lmin flevel ghlevel in
  match lcmp flevel ghlevel with
  | Gt =>
    match lcmp glevel hlevel with
    | Lt =>
      match zkids gnode with
      | Some (_, glo) => rec f glo h x s c
      | None => None
      end
    | cmp =>
      match zkids hnode, level with
      | Some (hhi, hlo), Some lv =>
        let g' :=
          match cmp with
          | Eq => match zkids gnode with Some (_, glo) => Some glo | None => None end
          | _ => Some g
          end in
        match g' with
        | None => None
        | Some g' => zlo_mk alloc C (rec f g' hlo x s c) lv hhi
        end
      | _, _ => None
      end
    end
  | Lt =>
    match zkids fnode with
    | Some (_, flo) => rec flo g h x s c
    | None => None
    end
  | Eq =>
    match zkids fnode, level with
    | Some (fhi, flo), Some lv =>
      match lcmp hlevel flevel with
      | Gt =>
        match zkids gnode with
        | Some (ghi, glo) => zjoin alloc C x (bin ZIntsec fhi ghi) (rec flo glo h) s c lv
        | None => None
        end
      | _ =>
        match lcmp glevel flevel with
        | Gt =>
          match zkids hnode with
          | Some (hhi, hlo) => zjoin alloc C x (bin ZDiff hhi fhi) (rec flo g hlo) s c lv
          | None => None
          end
        | _ =>
          match zkids gnode, zkids hnode with
          | Some (ghi, glo), Some (hhi, hlo) => zjoin alloc C x (rec fhi ghi hhi) (rec flo glo hlo) s c lv
          | _, _ => None
          end
        end
      end
    | _, _ => None
    end
  end.

Definition zcall_run (k : zcall) : run :=
  match k with
  | CBin op a b => bin op a b
  | CIte a b d => rec a b d
  end.

End IteRec.

Definition zcall_den (s : snap) (L : nat) (k : zcall) (X : fpred) : Prop :=
  match k with
  | CBin op a b => zcall2_den (pbin op) s L (a, b) X
  | CIte a b d => exists A B D, ZDen s a A /\ ZDen s b B /\ ZDen s d D /\
      L < rlevel s a /\ L < rlevel s b /\ L < rlevel s d /\ peq X (pite A B D)
  end.

Lemma zview_node : forall s r v X, ZbddOK s -> ZDen s r X -> zget s r = Some v -> rlevel s r < nlevels s ->
  exists hi lo XA XB, zkids v = Some (hi, lo) /\ ZDen s hi XA /\ ZDen s lo XB /\
    rlevel s r < rlevel s hi /\ rlevel s r < rlevel s lo /\
    peq X (node_pred (rlevel s r) XA XB) /\ sup (rlevel s r) XA /\ sup (rlevel s r) XB.
Proof.
  intros s r v X B D Ev Hl. destruct (rlevel_lt_node s r (zden_ok _ _ _ D) Hl) as (id & nd & -> & En).
  destruct (znode_facts s id nd X B D En) as (_ & _ & Rr & hi & lo & XA & XB & Ec & DA & DB & LA & LB & HX & SA & SB).
  simpl in Ev. rewrite En in Ev. inversion Ev; subst v. rewrite Rr.
  exists (eref hi), (eref lo), XA, XB. simpl. rewrite Ec. auto 10.
Qed.

Lemma zite_plan_ex : forall s f g h vf vg vh P Q R,
  ZbddOK s -> ZDen s f P -> ZDen s g Q -> ZDen s h R ->
  zget s f = Some vf -> zget s g = Some vg -> zget s h = Some vh ->
  g <> h -> is_empty_b s g = false -> is_empty_b s h = false ->
  exists p,
    zplan_den zcall (zcall_den s (Nat.min (rlevel s f) (Nat.min (rlevel s g) (rlevel s h)))) s
      (Nat.min (rlevel s f) (Nat.min (rlevel s g) (rlevel s h))) p (pite P Q R) /\
    forall alloc C rec bin x c,
      zite_rec_g alloc C rec bin x s c vf vg vh f g h = zplan_run alloc C zcall (zcall_run C rec bin) x s c p.
Proof.
  intros s f g h vf vg vh P Q R B DF DG DH Evf Evg Evh E1 Eg Eh.
  pose proof (zo_wf s B) as H.
  pose proof (rlevel_le s H f) as LeF. pose proof (rlevel_le s H g) as LeG. pose proof (rlevel_le s H h) as LeH.
  (* the comparisons of the code are comparisons of [rlevel]s *)
  destruct (vlevel_rlevel s f vf H Evf) as [VF OF]. destruct (vlevel_rlevel s g vg H Evg) as [VG OG].
  destruct (vlevel_rlevel s h vh H Evh) as [VH OH].
  destruct (lmin_olev _ (vlevel vg) (vlevel vh) OG OH) as [VGH OGH].
  destruct (lmin_olev _ (vlevel vf) _ OF OGH) as [VL OL].
  pose proof (lcmp_olev _ (vlevel vf) _ OF OGH) as C1. pose proof (lcmp_olev _ (vlevel vg) (vlevel vh) OG OH) as C2.
  pose proof (lcmp_olev _ (vlevel vh) (vlevel vf) OH OF) as C3. pose proof (lcmp_olev _ (vlevel vg) (vlevel vf) OG OF) as C4.
  rewrite VGH in VL, C1. rewrite VF, VG, VH in *. clear VF VG VH VGH OF OG OH OGH.
  assert (Top : forall L, Nat.min (rlevel s f) (Nat.min (rlevel s g) (rlevel s h)) = L -> L < nlevels s ->
            lmin (vlevel vf) (lmin (vlevel vg) (vlevel vh)) = Some L).
  { intros L EL HL. rewrite (olev_some _ _ ltac:(rewrite VL, EL; exact HL)), VL, EL. reflexivity. }
  clear VL OL.
  pose proof (fun r v X => zview_node s r v X B) as Node.
  pose proof (fun r X L => zden_sup s r X L B) as Below.
  set (N := nlevels s) in *. set (F := rlevel s f) in *. set (G := rlevel s g) in *. set (Hh := rlevel s h) in *.
  revert C1. destruct (Nat.compare_spec F (Nat.min G Hh)) as [HFc|HFc|HFc]; intros C1.
  - (* f at the top level, together with g or h or both *)
    assert (HFN : F < N).
    { destruct (Nat.eq_dec F N) as [HN|HN]; [exfalso | lia].
      (* otherwise g and h are both the base terminal *)
      destruct g as [tg|idg]; [|destruct (zden_ok _ _ _ DG) as [nd En]; unfold G in *; rewrite (rlevel_node s idg nd En) in *; pose proof (wf_level s H idg nd En); lia].
      destruct h as [th|idh]; [|destruct (zden_ok _ _ _ DH) as [nd En]; unfold Hh in *; rewrite (rlevel_node s idh nd En) in *; pose proof (wf_level s H idh nd En); lia].
      apply E1. f_equal.
      destruct (zterm_cases s tg B (zden_ok _ _ _ DG)) as [Etg|Etg];
        [unfold is_empty_b, is_term_with in Eg; rewrite Etg in Eg; discriminate|].
      destruct (zterm_cases s th B (zden_ok _ _ _ DH)) as [Eth|Eth];
        [unfold is_empty_b, is_term_with in Eh; rewrite Eth in Eh; discriminate|].
      apply (term_val_inj s tg th 1%N H Etg Eth). }
    rewrite <- HFc, Nat.min_id. specialize (Top F ltac:(lia) HFN).
    destruct (Node f _ P DF Evf HFN) as (fhi & flo & PA & PB & Kf & DA & DB & LA & LB & HP & SA & SB). fold F in LA, LB, HP, SA, SB.
    revert C3. destruct (Nat.compare_spec Hh F) as [HHc|HHc|HHc]; intros C3; [|lia|].
    + destruct (Node h _ R DH Evh ltac:(fold Hh; lia)) as (hhi & hlo & RA & RB & Kh & DA'' & DB'' & LA'' & LB'' & HR & SA'' & SB'').
      fold Hh in LA'', LB'', HR, SA'', SB''. rewrite HHc in *.
      revert C4. destruct (Nat.compare_spec G F) as [HGc|HGc|HGc]; intros C4; [|lia|].
      * (* all three *)
        destruct (Node g _ Q DG Evg ltac:(fold G; lia)) as (ghi & glo & QA & QB & Kg & DA' & DB' & LA' & LB' & HQ & SA' & SB').
        fold G in LA', LB', HQ, SA', SB'. rewrite HGc in *.
        exists (PJoin (CIte fhi ghi hhi) (CIte flo glo hlo) F). split.
        2:{ intros. unfold zite_rec_g. cbv zeta. rewrite C1, C3, C4, Top, Kf, Kg, Kh. reflexivity. }
        split; [reflexivity|]. split; [exact HFN|]. exists (pite PA QA RA), (pite PB QB RB).
        split; [apply pite_sup; assumption|]. split; [apply pite_sup; assumption|].
        split; [exists PA, QA, RA; auto 10 using peq_refl|]. split; [exists PB, QB, RB; auto 10 using peq_refl|].
        apply (peq_trans _ _ _ (pite_ext _ _ _ _ _ _ HP HQ HR)). apply pite_all_top; assumption.
      * (* f and h *)
        pose proof (Below g Q F DG HGc) as SQ.
        exists (PJoin (CBin ZDiff hhi fhi) (CIte flo g hlo) F). split.
        2:{ intros. unfold zite_rec_g. cbv zeta. rewrite C1, C3, C4, Top, Kf, Kh. reflexivity. }
        split; [reflexivity|]. split; [exact HFN|]. exists (pbin ZDiff RA PA), (pite PB Q RB).
        split; [apply (pbin_sup ZDiff); assumption|]. split; [apply pite_sup; assumption|].
        split; [exists RA, PA; auto 10 using peq_refl|]. split; [exists PB, Q, RB; auto 10 using peq_refl|].
        apply (peq_trans _ _ _ (pite_ext _ _ _ _ _ _ HP (peq_refl Q) HR)). apply pite_fh_top; assumption.
    + (* f and g *)
      assert (HGF : G = F) by lia.
      destruct (Node g _ Q DG Evg ltac:(fold G; lia)) as (ghi & glo & QA & QB & Kg & DA' & DB' & LA' & LB' & HQ & SA' & SB').
      fold G in LA', LB', HQ, SA', SB'. rewrite HGF in *.
      pose proof (Below h R F DH HHc) as SR.
      exists (PJoin (CBin ZIntsec fhi ghi) (CIte flo glo h) F). split.
      2:{ intros. unfold zite_rec_g. cbv zeta. rewrite C1, C3, Top, Kf, Kg. reflexivity. }
      split; [reflexivity|]. split; [exact HFN|]. exists (pbin ZIntsec PA QA), (pite PB QB R).
      split; [apply (pbin_sup ZIntsec); assumption|]. split; [apply pite_sup; assumption|].
      split; [exists PA, QA; auto 10 using peq_refl|]. split; [exists PB, QB, R; auto 10 using peq_refl|].
      apply (peq_trans _ _ _ (pite_ext _ _ _ _ _ _ HP HQ (peq_refl R))). apply pite_fg_top; assumption.
  - (* f alone on top *)
    rewrite Nat.min_l by lia.
    destruct (Node f _ P DF Evf ltac:(fold F N; lia)) as (fhi & flo & PA & PB & Kf & DA & DB & LA & LB & HP & SA & SB).
    fold F in LA, LB, HP, SA, SB.
    exists (PStep (CIte flo g h)). split.
    2:{ intros. unfold zite_rec_g. cbv zeta. rewrite C1, Kf. reflexivity. }
    exists PB, Q, R. repeat (split; [first [assumption | fold G; lia | fold Hh; lia]|]).
    apply (peq_trans _ _ _ (pite_ext _ _ _ _ _ _ HP (peq_refl Q) (peq_refl R))).
    apply pite_f_top; [apply (Below g Q F DG) | apply (Below h R F DH)]; [fold G | fold Hh]; lia.
  - (* g or h (or both) above f *)
    pose proof (Below f P (Nat.min G Hh) DF HFc) as SP.
    rewrite (Nat.min_r F) in * by lia.
    revert C2. destruct (Nat.compare_spec G Hh) as [HGc|HGc|HGc]; intros C2.
    + (* g and h *)
      rewrite HGc, Nat.min_id in *. specialize (Top Hh eq_refl ltac:(lia)).
      destruct (Node h _ R DH Evh ltac:(fold Hh N; lia)) as (hhi & hlo & RA & RB & Kh & DA'' & DB'' & LA'' & LB'' & HR & SA'' & SB'').
      fold Hh in LA'', LB'', HR, SA'', SB''.
      destruct (Node g _ Q DG Evg ltac:(fold G N; lia)) as (ghi & glo & QA & QB & Kg & DA' & DB' & LA' & LB' & HQ & SA' & SB').
      fold G in LA', LB', HQ, SA', SB'. rewrite HGc in *.
      exists (PLo (CIte f glo hlo) Hh hhi). split.
      2:{ intros. unfold zite_rec_g. cbv zeta. rewrite C1, C2, Top, Kg, Kh. reflexivity. }
      split; [reflexivity|]. split; [lia|]. exists RA, (pite P QB RB).
      repeat (split; [first [assumption | apply pite_sup; assumption]|]).
      split; [exists P, QB, RB; auto 10 using peq_refl|].
      apply (peq_trans _ _ _ (pite_ext _ _ _ _ _ _ (peq_refl P) (peq_refl Q) HR)).
      apply pite_h_top; auto.
      intros S HS. rewrite (HQ S). unfold node_pred. split; [|auto].
      intros [[T [-> _]]|HB]; [simpl in HS; lia | exact HB].
    + (* g alone *)
      rewrite Nat.min_l in * by lia.
      destruct (Node g _ Q DG Evg ltac:(fold G N; lia)) as (ghi & glo & QA & QB & Kg & DA' & DB' & LA' & LB' & HQ & SA' & SB').
      fold G in LA', LB', HQ, SA', SB'.
      exists (PStep (CIte f glo h)). split.
      2:{ intros. unfold zite_rec_g. cbv zeta. rewrite C1, C2, Kg. reflexivity. }
      exists P, QB, R. repeat (split; [first [assumption | fold F; lia | fold Hh; lia]|]).
      apply (peq_trans _ _ _ (pite_ext _ _ _ _ _ _ (peq_refl P) HQ (peq_refl R))).
      apply pite_g_top; [exact SP | apply (Below h R G DH HGc)].
    + (* h alone *)
      rewrite Nat.min_r in * by lia. specialize (Top Hh eq_refl ltac:(lia)).
      destruct (Node h _ R DH Evh ltac:(fold Hh N; lia)) as (hhi & hlo & RA & RB & Kh & DA'' & DB'' & LA'' & LB'' & HR & SA'' & SB'').
      fold Hh in LA'', LB'', HR, SA'', SB''.
      pose proof (Below g Q Hh DG HGc) as SQ.
      exists (PLo (CIte f g hlo) Hh hhi). split.
      2:{ intros. unfold zite_rec_g. cbv zeta. rewrite C1, C2, Top, Kh. reflexivity. }
      split; [reflexivity|]. split; [lia|]. exists RA, (pite P Q RB).
      repeat (split; [first [assumption | apply pite_sup; assumption]|]).
      split; [exists P, Q, RB; auto 10 using peq_refl|].
      apply (peq_trans _ _ _ (pite_ext _ _ _ _ _ _ (peq_refl P) (peq_refl Q) HR)).
      apply pite_h_top; auto. intros S _. reflexivity.
Qed.

Lemma zite_hit : forall s f g h P Q R r0, ZDen s f P -> ZDen s g Q -> ZDen s h R ->
  zentry_x s zcode_ite [f; g; h] [] r0 -> ZDen s r0 (pite P Q R).
Proof.
  intros s f g h P Q R r0 DF DG DH Ox. simpl in Ox.
  destruct (Ox eq_refl) as (P0 & Q0 & R0 & D0 & D0' & D0'' & Dr). apply (zden_ext s r0 _ _ Dr).
  apply pite_ext; [apply (zden_unique s f P0 P D0 DF) | apply (zden_unique s g Q0 Q D0' DG) | apply (zden_unique s h R0 R D0'' DH)].
Qed.

Section GenIte.
Variable alloc : snap -> positive.
Hypothesis Halloc : alloc_ok alloc.
Variable gt : ref -> ref -> bool.
Variable C : Type.
Variable cget : C -> N -> list ref -> list nat -> option ref.
Variable cadd : C -> N -> list ref -> list nat -> ref -> C.
Hypothesis Hlossy : zlossy C cget cadd.

Notation COKB := (ZCacheOKB C cget).
Notation RST := (zres_st cget).
Notation ite_at n := (fun a b d x s c => zapply_ite_g alloc gt C cget cadd n x s c a b d).
Notation bin_at n := (fun op a b x s c => zapply_g alloc gt C cget cadd n x s c op a b).

Lemma zapply_ite_g_S : forall n x s c f g h,
  zapply_ite_g alloc gt C cget cadd (S n) x s c f g h =
    if ref_eqb g h then Some (s, c, g)
    else if ref_eqb f g then zapply_g alloc gt C cget cadd (S n) x s c ZUnion f h
    else if ref_eqb f h then zapply_g alloc gt C cget cadd (S n) x s c ZIntsec f g
    else
      match zget s f with
      | None => None
      | Some fnode =>
        if is_empty_b s f then Some (s, c, h)
        else
          match zget s g with
          | None => None
          | Some gnode =>
            if is_empty_b s g then zapply_g alloc gt C cget cadd (S n) x s c ZDiff h f
            else
              match zget s h with
              | None => None
              | Some hnode =>
                if is_empty_b s h then zapply_g alloc gt C cget cadd (S n) x s c ZIntsec f g
                else
                  match ztaut_opt s (lmin (vlevel fnode) (lmin (vlevel gnode) (vlevel hnode))) with
                  | None => None
                  | Some taut =>
                    if ref_eqb f taut then Some (s, c, g)
                    else if ref_eqb g taut then zapply_g alloc gt C cget cadd (S n) x s c ZUnion f h
                    else
                      match cget c zcode_ite [f; g; h] [] with
                      | Some r => Some (s, c, r)
                      | None =>
                        zfin C cadd (zite_rec_g alloc C (ite_at n) (bin_at (S n)) x s c fnode gnode hnode f g h)
                          zcode_ite [f; g; h]
                      end
                  end
              end
          end
      end.
Proof. reflexivity. Qed.

Definition zite_ok_at (n : nat) : Prop := forall x s c f g h P Q R,
  ZbddOK s -> ZChainOK s -> COKB s c -> ZDen s f P -> ZDen s g Q -> ZDen s h R ->
  nlevels s - Nat.min (rlevel s f) (Nat.min (rlevel s g) (rlevel s h)) < n ->
  RST s (zapply_ite_g alloc gt C cget cadd n x s c f g h) (pite P Q R).

Lemma zcall_run_ok : forall n s L k X,
  zite_ok_at n -> ZbddOK s -> ZChainOK s -> nlevels s - L < S n -> zcall_den s L k X ->
  zrun_ok cget s (zcall_run C (ite_at n) (bin_at (S n)) k) X.
Proof.
  intros n s L k X IH B Hch Hn Dk x' s' c' B' X' O'. pose proof (zo_wf s B) as H.
  destruct k as [op a b|a b d]; cbn [zcall_den zcall_run] in Dk |- *.
  - apply (zcall2_run_ok C cget (pbin op) (bin_at (S n) op) (S n) s L (a, b) X); auto; [|lia].
    intros x0 s0 c0 f g P Q. apply (zapply_g_ok alloc Halloc gt C cget cadd Hlossy).
  - destruct Dk as (PA & PB & PD & Da & Db & Dd & La & Lb & Ld & HX).
    apply (zres_st_ext C cget s' _ (pite PA PB PD)); [apply peq_sym; exact HX|].
    apply IH; auto; try (apply (zden_extends s s' _ _ B X'); assumption).
    + apply (zchain_extends s s' B B' X' Hch).
    + rewrite (ext_nlevels _ _ X'), (ext_rlevel _ _ _ X' (zden_ok _ _ _ Da)),
        (ext_rlevel _ _ _ X' (zden_ok _ _ _ Db)), (ext_rlevel _ _ _ X' (zden_ok _ _ _ Dd)).
      pose proof (rlevel_le s H a). lia.
Qed.

Theorem zapply_ite_g_ok : forall fuel x s c f g h P Q R,
  ZbddOK s -> ZChainOK s -> COKB s c -> ZDen s f P -> ZDen s g Q -> ZDen s h R ->
  nlevels s - Nat.min (rlevel s f) (Nat.min (rlevel s g) (rlevel s h)) < fuel ->
  RST s (zapply_ite_g alloc gt C cget cadd fuel x s c f g h) (pite P Q R).
Proof.
  induction fuel as [|n IH]; intros x s c f g h P Q R B Hch O DF DG DH Hfuel; [lia|].
  rewrite zapply_ite_g_S.
  pose proof (zo_wf s B) as H.
  pose proof (zden_dec s f P) as HdP. assert (Hd : pdec P) by (intros S; apply HdP; exact DF). clear HdP.
  pose proof (rlevel_le s H f) as LeF. pose proof (rlevel_le s H g) as LeG. pose proof (rlevel_le s H h) as LeH.
  destruct (ref_eqb g h) eqn:E1.
  { apply ref_eqb_eq in E1. subst h. apply (zres_st_here C cget); auto.
    apply (zden_ext s g Q); [exact DG|]. intros S.
    rewrite (pite_ext P P Q Q R Q (peq_refl P) (peq_refl Q) (zden_unique s g R Q DH DG) S).
    symmetry. apply pite_same. exact Hd. }
  destruct (ref_eqb f g) eqn:E2.
  { apply ref_eqb_eq in E2. subst g.
    apply (zres_st_ext C cget s _ (pbin ZUnion P R)).
    - intros S. rewrite (pite_ext P P Q P R R (peq_refl P) (zden_unique s f Q P DG DF) (peq_refl R) S).
      symmetry. apply pite_f_eq_g. exact Hd.
    - apply (zapply_g_ok alloc Halloc gt C cget cadd Hlossy); auto. lia. }
  destruct (ref_eqb f h) eqn:E3.
  { apply ref_eqb_eq in E3. subst h.
    apply (zres_st_ext C cget s _ (pbin ZIntsec P Q)).
    - intros S. rewrite (pite_ext P P Q Q R P (peq_refl P) (peq_refl Q) (zden_unique s f R P DH DF) S).
      symmetry. apply pite_f_eq_h.
    - apply (zapply_g_ok alloc Halloc gt C cget cadd Hlossy); auto. lia. }
  apply ref_eqb_false in E1. clear E2 E3.
  destruct (zget_total s f (zden_ok _ _ _ DF)) as [vf Evf]. rewrite Evf.
  destruct (is_empty_b s f) eqn:Ef.
  { destruct (is_empty_b_true s f Ef) as [t [-> Et]]. apply (zres_st_here C cget); auto.
    apply (zden_ext s h R); [exact DH|]. intros S.
    rewrite (pite_ext P pempty Q Q R R (zden_unique s _ P pempty DF (zden_empty s t B Et)) (peq_refl Q) (peq_refl R) S).
    symmetry. apply pite_f_empty. }
  destruct (zget_total s g (zden_ok _ _ _ DG)) as [vg Evg]. rewrite Evg.
  destruct (is_empty_b s g) eqn:Eg.
  { destruct (is_empty_b_true s g Eg) as [t [-> Et]].
    apply (zres_st_ext C cget s _ (pbin ZDiff R P)).
    - intros S.
      rewrite (pite_ext P P Q pempty R R (peq_refl P) (zden_unique s _ Q pempty DG (zden_empty s t B Et)) (peq_refl R) S).
      symmetry. apply pite_g_empty.
    - apply (zapply_g_ok alloc Halloc gt C cget cadd Hlossy); auto. lia. }
  destruct (zget_total s h (zden_ok _ _ _ DH)) as [vh Evh]. rewrite Evh.
  destruct (is_empty_b s h) eqn:Eh.
  { destruct (is_empty_b_true s h Eh) as [t [-> Et]].
    apply (zres_st_ext C cget s _ (pbin ZIntsec P Q)).
    - intros S.
      rewrite (pite_ext P P Q Q R pempty (peq_refl P) (peq_refl Q) (zden_unique s _ R pempty DH (zden_empty s t B Et)) S).
      symmetry. apply pite_h_empty.
    - apply (zapply_g_ok alloc Halloc gt C cget cadd Hlossy); auto. lia. }
  set (Lv := Nat.min (rlevel s f) (Nat.min (rlevel s g) (rlevel s h))) in *.
  assert (ELv : olev (nlevels s) (lmin (vlevel vf) (lmin (vlevel vg) (vlevel vh))) = Lv).
  { destruct (vlevel_rlevel s f vf H Evf) as [VF OF]. destruct (vlevel_rlevel s g vg H Evg) as [VG OG].
    destruct (vlevel_rlevel s h vh H Evh) as [VH OH].
    destruct (lmin_olev _ (vlevel vg) (vlevel vh) OG OH) as [VGH OGH].
    rewrite (proj1 (lmin_olev _ (vlevel vf) _ OF OGH)), VGH, VF, VG, VH. reflexivity. }
  rewrite ztaut_opt_olev, ELv. clear ELv.
  assert (InAll : forall r X S, ZDen s r X -> Lv <= rlevel s r -> X S -> pall (nlevels s) Lv S).
  { intros r X S D Hl HX. destruct (zden_support s r X S B D HX) as [I1 I2].
    split; [apply (incr_from_weaken S (rlevel s r)); [exact Hl | exact I1] | exact I2]. }
  destruct (ztaut_total s Lv Hch) as [ta Eta]. rewrite Eta.
  pose proof (ztaut_den s Lv ta B Eta) as Dta. rewrite Nat.min_l in Dta by (unfold Lv; lia).
  destruct (ref_eqb f ta) eqn:E4.
  { apply ref_eqb_eq in E4. subst ta. apply (zres_st_here C cget); auto.
    apply (zden_ext s g Q); [exact DG|]. apply peq_sym.
    apply (peq_trans _ (pite (pall (nlevels s) Lv) Q R)).
    - apply pite_ext; [apply (zden_unique s f P _ DF Dta) | apply peq_refl | apply peq_refl].
    - apply pite_f_taut; intros S HS; [apply (InAll g Q S DG) | apply (InAll h R S DH)]; auto; unfold Lv; lia. }
  destruct (ref_eqb g ta) eqn:E5.
  { apply ref_eqb_eq in E5. subst ta.
    apply (zres_st_ext C cget s _ (pbin ZUnion P R)).
    - apply peq_sym. apply (peq_trans _ (pite P (pall (nlevels s) Lv) R)).
      + apply pite_ext; [apply peq_refl | apply (zden_unique s g Q _ DG Dta) | apply peq_refl].
      + apply pite_g_taut; [exact Hd|]. intros S HS. apply (InAll f P S DF); auto. unfold Lv. lia.
    - apply (zapply_g_ok alloc Halloc gt C cget cadd Hlossy); auto. lia. }
  clear E4 E5 Eta Dta ta InAll.
  destruct (cget c zcode_ite [f; g; h] []) as [r0|] eqn:Ec.
  { apply (zres_st_here C cget); auto. apply (zite_hit s f g h P Q R r0 DF DG DH). apply (O _ _ _ _ Ec). }
  apply (zfin_ok C cget cadd Hlossy); [exact B| |].
  2:{ intros s' r B' X DR. apply (zite_entry s' f g h P Q R r); auto; apply (zden_extends s s' _ _ B X); assumption. }
  destruct (zite_plan_ex s f g h vf vg vh P Q R B DF DG DH Evf Evg Evh E1 Eg Eh) as (p & Dp & Ep).
  rewrite Ep. apply (zplan_run_ok alloc Halloc C cget zcall _ (zcall_den s Lv) x s c Lv p _ B O) with (2 := Dp).
  intros k Y. apply (zcall_run_ok n s Lv k Y IH B Hch Hfuel).
Qed.


(** ** All eight operators *)

(** the weaker result predicate of the two-stage operators: the edge is the
    existing one, the table may have grown by nodes of the intermediate result *)
Definition zres_wk (s : snap) (res : option (snap * C * ref)) (R : fpred) : Prop :=
  exists s' c' r, res = Some (s', c', r) /\
    ZbddOK s' /\ extends s s' /\ COKB s' c' /\ ZDen s' r R /\
    (forall r0, ZDen s r0 R -> r = r0).

Lemma zres_st_wk : forall s res R, RST s res R -> zres_wk s res R.
Proof.
  intros s res R (s' & c' & r & E & B & X & O & D & St). exists s', c', r.
  repeat (split; [assumption|]). intros r0 D0. apply (St r0 D0).
Qed.

Lemma zres_wk_weak : forall s res R, zres_wk s res R -> zresult_okB C cget s res R.
Proof.
  intros s res R (s' & c' & r & E & B & X & O & D & _). exists s', c', r. auto.
Qed.

Lemma zres_then_not_g : forall fuel x s res R,
  ZbddOK s -> ZChainOK s -> RST s res R -> nlevels s < fuel ->
  zres_wk s
    (match res with
     | Some (s1, c1, r) => zapply_not_g alloc gt C cget cadd fuel x s1 c1 r
     | None => None
     end) (pbin ZDiff (pall (nlevels s) 0) R).
Proof.
  intros fuel x s res R B Hc (s1 & c1 & r & E & B1 & X1 & O1 & D1 & _) Hf. subst res.
  pose proof (ext_nlevels _ _ X1) as Hn.
  destruct (zapply_not_g_ok alloc Halloc gt C cget cadd Hlossy fuel x s1 c1 r R B1
              (zchain_extends s s1 B B1 X1 Hc) O1 D1 ltac:(lia))
    as (s2 & c2 & r2 & E2 & B2 & X2 & O2 & D2 & S2).
  exists s2, c2, r2. split; [exact E2|]. split; [exact B2|].
  split; [apply (extends_trans _ _ _ X1 X2)|]. split; [exact O2|]. rewrite <- Hn.
  split; [exact D2|]. intros r0 D0. apply (S2 r0). apply (zden_extends s s1 r0 _ B X1 D0).
Qed.

(** and, or, xor, imp, imp_strict: one recursion - the strong predicate *)
Theorem zapply_op_g_st : forall op fuel x s c f g P Q,
  op <> ONand -> op <> ONor -> op <> OEquiv ->
  ZbddOK s -> ZChainOK s -> COKB s c -> ZDen s f P -> ZDen s g Q -> nlevels s < fuel ->
  RST s (zapply_op_g alloc gt C cget cadd fuel x s c op f g) (pop (nlevels s) op P Q).
Proof.
  intros op fuel x s c f g P Q N1 N2 N3 B Hc O DF DG Hf.
  destruct op; try congruence; unfold zapply_op_g, pop.
  - apply (zapply_g_ok alloc Halloc gt C cget cadd Hlossy); auto; lia.
  - apply (zapply_g_ok alloc Halloc gt C cget cadd Hlossy); auto; lia.
  - apply (zsymm_g_ok alloc Halloc gt C cget cadd Hlossy); auto; lia.
  - destruct (ztaut_total s 0 Hc) as [t Et]. rewrite Et.
    pose proof (ztaut_den s 0 t B Et) as Dt. rewrite Nat.min_0_l in Dt.
    apply zapply_ite_g_ok; auto. lia.
  - apply (zapply_g_ok alloc Halloc gt C cget cadd Hlossy); auto; lia.
Qed.

(** all eight *)
Theorem zapply_op_g_ok : forall op fuel x s c f g P Q,
  ZbddOK s -> ZChainOK s -> COKB s c -> ZDen s f P -> ZDen s g Q -> nlevels s < fuel ->
  zres_wk s (zapply_op_g alloc gt C cget cadd fuel x s c op f g) (pop (nlevels s) op P Q).
Proof.
  intros op fuel x s c f g P Q B Hc O DF DG Hf.
  destruct op; try (apply zres_st_wk; apply zapply_op_g_st; auto; discriminate);
    unfold zapply_op_g, pop; apply zres_then_not_g; auto.
  - apply (zsymm_g_ok alloc Halloc gt C cget cadd Hlossy); auto; lia.
  - apply (zapply_g_ok alloc Halloc gt C cget cadd Hlossy); auto; lia.
  - apply (zapply_g_ok alloc Halloc gt C cget cadd Hlossy); auto; lia.
Qed.

End GenIte.

Arguments zres_wk {C}.

(** ** The sequential configuration with [fresh_id] is the model of DD/ZbddBool.v *)

Section SeqIte.
Variable gt : ref -> ref -> bool.
Variable C : Type.
Variable cget : C -> N -> list ref -> list nat -> option ref.
Variable cadd : C -> N -> list ref -> list nat -> ref -> C.

Local Ltac strip_fin :=
  unfold zfin;
  match goal with
  | |- match ?a with _ => _ end = match ?b with _ => _ end =>
    let Hx := fresh "Hx" in assert (Hx : a = b); [|rewrite Hx; reflexivity]
  end.

Local Ltac seq_join IH :=
  unfold zjoin, fork2; cbn [sch_swap sch_stale sch_l sch_r];
  rewrite ?zapply_g_seq, ?IH;
  match goal with
  | |- match match ?a with _ => _ end with _ => _ end = _ => destruct a as [[[? ?] ?]|]; [|reflexivity]
  end;
  rewrite ?IH;
  match goal with
  | |- match match ?a with _ => _ end with _ => _ end = _ => destruct a as [[[? ?] ?]|]; reflexivity
  end.

Theorem zapply_ite_g_seq : forall fuel s c f g h,
  zapply_ite_g fresh_id gt C cget cadd fuel SSeq s c f g h = zapply_ite gt C cget cadd fuel s c f g h.
Proof.
  induction fuel as [|n IH]; intros s c f g h; [reflexivity|].
  rewrite zapply_ite_g_S, (zapply_ite_S gt C cget cadd). unfold zite_rec_g.
  destruct (ref_eqb g h); [reflexivity|].
  destruct (ref_eqb f g); [apply zapply_g_seq|].
  destruct (ref_eqb f h); [apply zapply_g_seq|].
  destruct (zget s f) as [fnode|]; [|reflexivity].
  destruct (is_empty_b s f); [reflexivity|].
  destruct (zget s g) as [gnode|]; [|reflexivity].
  destruct (is_empty_b s g); [apply zapply_g_seq|].
  destruct (zget s h) as [hnode|]; [|reflexivity].
  destruct (is_empty_b s h); [apply zapply_g_seq|].
  cbv zeta.
  destruct (ztaut_opt s (lmin (vlevel fnode) (lmin (vlevel gnode) (vlevel hnode)))) as [taut|]; [|reflexivity].
  destruct (ref_eqb f taut); [reflexivity|].
  destruct (ref_eqb g taut); [apply zapply_g_seq|].
  destruct (cget c zcode_ite [f; g; h] []); [reflexivity|].
  strip_fin.
  repeat match goal with
  | |- match ?a with _ => _ end = match ?a with _ => _ end => destruct a
  | |- match ?a with _ => _ end = match match ?a with _ => _ end with _ => _ end => destruct a
  end;
  try reflexivity; try apply IH;
  try (unfold zlo_mk; rewrite IH; reflexivity);
  try (seq_join IH).
Qed.

Theorem zapply_op_g_seq : forall fuel s c op f g,
  zapply_op_g fresh_id gt C cget cadd fuel SSeq s c op f g = zapply_op gt C cget cadd fuel s c op f g.
Proof.
  intros fuel s c op f g. destruct op; unfold zapply_op_g, zapply_op;
    rewrite ?zapply_g_seq, ?zsymm_g_seq; try reflexivity.
  - destruct (zsymm gt C cget cadd fuel s c f g) as [[[s1 c1] r]|]; [apply zapply_not_g_seq | reflexivity].
  - destruct (zapply gt C cget cadd fuel s c ZIntsec f g) as [[[s1 c1] r]|]; [apply zapply_not_g_seq | reflexivity].
  - destruct (zapply gt C cget cadd fuel s c ZUnion f g) as [[[s1 c1] r]|]; [apply zapply_not_g_seq | reflexivity].
  - destruct (ztaut s 0); [apply zapply_ite_g_seq | reflexivity].
Qed.

End SeqIte.
