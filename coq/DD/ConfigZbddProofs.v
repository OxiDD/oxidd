(** * Correctness of the configuration-generic ZBDD operations (DD/ConfigZbdd.v), part 1

    - [zmk_node_a_ok], [zmk_node_a_stable]: [reduce] on an arbitrary node store;
      [zden_node_pred_inv]: if a family [lo u { L :: T | T in hi }] has an edge,
      so have [hi] and [lo];
    - [zres_st]: the result predicate - well-formed extension, correct cache
      (all nine operator codes, [ZCacheOKB]), the edge denotes the family, AND
      if that family already has an edge then exactly that edge is returned and
      the table is unchanged (the existing [zresult_okB] of DD/ZbddBoolProofs.v
      has no such clause; it is what makes runs with different caches agree);
    - [zfork2_ok], [zjoin_ok], [zlo_mk_ok], [zfin_ok]: the building blocks of
      the recursions under an arbitrary schedule; [zplan], [zplan_run_ok]: one
      step of a recursion as a plan over its sub-calls;
    - [zcore], [zbin_plan_ex], [zcore_ok]: the recursion scheme shared by union,
      intersection, difference and symmetric difference, for any operator
      with the properties [zbinop_ok];
    - [zapply_g_ok] (union, intersection, difference), [zapply_not_g_ok],
      [zsymm_g_ok] for every allocator, operand order, lossy cache, schedule;
    - [zapply_g_seq], [zsymm_g_seq], [zapply_not_g_seq]: the instance [fresh_id] /
      [SSeq] is DD/ZbddOps.v / DD/ZbddBool.v.

    - [zdc_wrap_a_ok], [zvar_a_ok], [znot_var_g_ok]: [var_edge] / [not_var_edge]
      on an arbitrary node store, and their [fresh_id] instances.

    Part 2 (ite, the eight operators): DD/ConfigZbddIte.v. *)

From Coq Require Import List NArith PArith Bool Arith Lia FMapPositive.
From OxiVerif Require Import DD.Table DD.TableExtra DD.TableProofs DD.Sem DD.Build DD.BuildProofs DD.PickInsert
  DD.Apply DD.ApplyProofs DD.CanonZbdd DD.FamSpec DD.FamSpecProofs DD.ZbddOps DD.ZbddOpsProofs
  DD.ZbddSubsetProofs DD.ZbddSoundProofs DD.ZbddVars DD.ZbddVarsProofs DD.ZbddBool DD.ZbddBoolProofs
  DD.ConfigApply DD.ConfigProofs DD.ConfigInsert DD.ConfigZbdd.
Import ListNotations.

(** ** Families of the shape [node_pred L A B] *)

(** if the family [node_pred L A B] has an edge in the table, so have [A] and [B] *)
Lemma zden_node_pred_inv : forall s r0 L A B, ZbddOK s -> L < nlevels s ->
  sup L A -> sup L B -> ZDen s r0 (node_pred L A B) ->
  exists qa qb, ZDen s qa A /\ ZDen s qb B.
Proof.
  intros s r0 L A B Bok HL SA SB D0. pose proof (zo_wf s Bok) as H.
  assert (L0 : L <= rlevel s r0).
  { apply (zden_level s r0 _ L Bok D0); [lia|].
    intros S [[T [-> HT]]|HB].
    - simpl. split; [lia | apply SA; exact HT].
    - apply (incr_from_weaken S (Datatypes.S L)); [lia | apply SB; exact HB]. }
  destruct (Nat.eq_dec (rlevel s r0) L) as [Heq|Hne].
  - destruct (rlevel_lt_node s r0 (zden_ok _ _ _ D0) ltac:(lia)) as (id & nd & -> & En).
    destruct (znode_facts s id nd _ Bok D0 En)
      as (_ & _ & Rr & hi & lo & PA & PB & Ec & DA & DB & _ & _ & HP & SPA & SPB).
    rewrite Rr in Heq. rewrite Heq in *.
    destruct (node_pred_inj L A B PA PB SB SPB HP) as [HA HB].
    exists (eref hi), (eref lo). split.
    + apply (zden_ext s _ PA A DA). apply peq_sym. exact HA.
    + apply (zden_ext s _ PB B DB). apply peq_sym. exact HB.
  - assert (Hlt : L < rlevel s r0) by lia.
    pose proof (zden_sup s r0 _ L Bok D0 Hlt) as SR.
    destruct (zempty_spec s Bok) as [te [_ Et]].
    exists (RT te), r0. split.
    + apply (zden_ext s _ pempty A (zden_empty s te Bok Et)). intros T. unfold pempty. split; [tauto|].
      intros HT. apply (sup_nohead L _ T SR). left. exists T. auto.
    + apply (zden_ext s r0 _ B D0). intros S. split.
      * intros [[T [-> HT]]|HB]; [|exact HB]. exfalso. apply (sup_nohead L _ T SR). left. exists T. auto.
      * intros HB. right. exact HB.
Qed.

(** ** [reduce] = [zmk_node_a] *)

Section Alloc.
Variable alloc : snap -> positive.
Hypothesis Halloc : alloc_ok alloc.

Theorem zmk_node_a_ok : forall s lvl hi lo PA PB s' r,
  ZbddOK s -> lvl < nlevels s -> ZDen s hi PA -> ZDen s lo PB ->
  lvl < rlevel s hi -> lvl < rlevel s lo ->
  zmk_node_a alloc s lvl hi lo = (s', r) ->
  ZbddOK s' /\ extends s s' /\ ZDen s' r (node_pred lvl PA PB) /\ lvl <= rlevel s' r /\
  (s' = s \/ exists id, r = RN id /\ find_node s id = None).
Proof.
  intros s lvl hi lo PA PB s' r B Hl DA DB Lh Ll. unfold zmk_node_a.
  pose proof (zo_wf s B) as H. pose proof (zo_kind s B) as Hk.
  destruct (is_empty_b s hi) eqn:Ee.
  - intros Heq. inversion Heq; subst s' r; clear Heq.
    destruct (is_empty_b_true s hi Ee) as [t [-> Et]].
    split; [exact B|]. split; [apply extends_refl|]. split; [|split; [lia | left; reflexivity]].
    apply (zden_ext s lo PB); [exact DB|].
    pose proof (zden_unique s (RT t) PA pempty DA (zden_empty s t B Et)) as Hpe.
    intros S. unfold node_pred. split; [auto|].
    intros [[T [_ HT]]|Hb]; [destruct (proj1 (Hpe T) HT) | exact Hb].
  - destruct (get_or_insert_a alloc s lvl [E hi; E lo]) as [s1 e] eqn:Eg.
    intros Heq. inversion Heq; subst s' r; clear Heq.
    pose proof (zden_ok _ _ _ DA) as Oh. pose proof (zden_ok _ _ _ DB) as Ol.
    assert (Hlen : length [E hi; E lo] = arity (s_kind s)) by (rewrite Hk; reflexivity).
    assert (Hce : forall x, In x [E hi; E lo] -> ref_ok s (eref x) /\ lvl < rlevel s (eref x)).
    { intros x [<-|[<-|[]]]; simpl; auto. }
    assert (Hred : reduced s [E hi; E lo]).
    { unfold reduced. rewrite Hk. exists (E hi). split; [reflexivity|]. simpl. intros t Et. subst hi.
      apply is_empty_b_false. exact Ee. }
    assert (Htags : s_kind s <> KBcdd -> forall x, In x [E hi; E lo] -> etag x = false).
    { intros _ x [<-|[<-|[]]]; reflexivity. }
    destruct (goi_any_a alloc Halloc s lvl _ H Hl Hlen Hce Hred Htags s1 e Eg)
      as [W' [X [[id [nd [Er [E' [El Ec]]]]] Hnew]]].
    assert (B' : ZbddOK s1) by (apply (zbddok_extends s s1 B X W')).
    subst e. simpl eref.
    split; [exact B'|]. split; [exact X|]. split; [|split].
    + rewrite <- El. apply (zden_node s1 id nd (E hi) (E lo) PA PB B' E' Ec);
        simpl eref; apply (zden_extends s s1 _ _ B X); assumption.
    + simpl. rewrite E'. lia.
    + destruct Hnew as [->|Hn]; [left; reflexivity | right; exists id; simpl in Hn; auto].
Qed.

(** if the family to be built already has an edge, [zmk_node_a] returns it and
    leaves the table alone *)
Lemma zmk_node_a_stable : forall s lvl hi lo PA PB s' r r0,
  ZbddOK s -> lvl < nlevels s -> ZDen s hi PA -> ZDen s lo PB ->
  lvl < rlevel s hi -> lvl < rlevel s lo ->
  zmk_node_a alloc s lvl hi lo = (s', r) ->
  ZDen s r0 (node_pred lvl PA PB) -> s' = s /\ r = r0.
Proof.
  intros s lvl hi lo PA PB s' r r0 B Hl DA DB Lh Ll Em D0.
  destruct (zmk_node_a_ok s lvl hi lo PA PB s' r B Hl DA DB Lh Ll Em) as (B' & X & D & _ & Hnew).
  assert (Er : r = r0)
    by (apply (zden_canon s' r r0 _ _ B' D (zden_extends s s' r0 _ B X D0)); apply peq_refl).
  split; [|exact Er].
  destruct Hnew as [Hs|[id [Ei Hn]]]; [exact Hs|].
  exfalso. subst r r0. destruct (zden_ok _ _ _ D0) as [nd En]. congruence.
Qed.

End Alloc.

(** ** One step of a recursion below its cache lookup

    A direct sub-call, a sub-call followed by [reduce_borrowed] under an old
    hi edge, or two sub-calls under the schedule followed by [reduce]; [K]
    names the sub-calls.  [zplan_den]: [L] is the top level of the operands,
    [den k Y] says that sub-call [k] is to compute [Y]. *)

Inductive zplan (K : Type) :=
| PStep (k : K)
| PLo (k : K) (lv : nat) (hi : ref)
| PJoin (kh kl : K) (lv : nat).
Arguments PStep {K}. Arguments PLo {K}. Arguments PJoin {K}.

Definition zplan_run (alloc : snap -> positive) (C K : Type)
    (call : K -> sched -> snap -> C -> option (snap * C * ref))
    (x : sched) (s : snap) (c : C) (p : zplan K) : option (snap * C * ref) :=
  match p with
  | PStep k => call k x s c
  | PLo k lv hi => zlo_mk alloc C (call k x s c) lv hi
  | PJoin kh kl lv => zjoin alloc C x (call kh) (call kl) s c lv
  end.

Definition zplan_den (K : Type) (den : K -> fpred -> Prop) (s : snap) (L : nat) (p : zplan K) (X : fpred) : Prop :=
  match p with
  | PStep k => den k X
  | PLo k lv hi => lv = L /\ L < nlevels s /\ exists HI LO,
      ZDen s hi HI /\ L < rlevel s hi /\ sup L HI /\ sup L LO /\ den k LO /\ peq X (node_pred L HI LO)
  | PJoin kh kl lv => lv = L /\ L < nlevels s /\ exists HI LO,
      sup L HI /\ sup L LO /\ den kh HI /\ den kl LO /\ peq X (node_pred L HI LO)
  end.

(** ** The binary recursions: union, intersection, difference, symmetric difference

    They differ in the family computed ([sem]), in whether the hi child of the
    operand that is alone on top is kept ([kl] for the first operand, [kr]
    for the second), in whether the operands may be swapped ([comm]) and in
    the cache code. *)

Definition zkeepl (op : zop) : bool := match op with ZUnion | ZDiff => true | ZIntsec => false end.
Definition zkeepr (op : zop) : bool := match op with ZUnion => true | ZIntsec | ZDiff => false end.

Record zbinop_ok (sem : fpred -> fpred -> fpred) (kl kr comm : bool) (code : N) : Prop := {
  zb_ext : forall P P' Q Q', peq P P' -> peq Q Q' -> peq (sem P Q) (sem P' Q');
  zb_sup : forall L P Q, sup L P -> sup L Q -> sup L (sem P Q);
  zb_node_node : forall L PA PB QA QB, sup L PB -> sup L QB ->
    peq (node_pred L (sem PA QA) (sem PB QB)) (sem (node_pred L PA PB) (node_pred L QA QB));
  zb_node_below : forall L PA PB Q, sup L PB -> sup L Q ->
    peq (sem (node_pred L PA PB) Q) (if kl then node_pred L PA (sem PB Q) else sem PB Q);
  zb_below_node : forall L P QA QB, sup L P -> sup L QB ->
    peq (sem P (node_pred L QA QB)) (if kr then node_pred L QA (sem P QB) else sem P QB);
  zb_comm : comm = true -> forall P Q, peq (sem P Q) (sem Q P);
  zb_keep : comm = true -> kl = kr;
  zb_hit : forall s f g r, zentry_ok s code [f; g] [] r -> zentry_x s code [f; g] [] r ->
    exists P Q, ZDen s f P /\ ZDen s g Q /\ ZDen s r (sem P Q);
  zb_entry : forall s f g P Q r, ZDen s f P -> ZDen s g Q -> ZDen s r (sem P Q) ->
    zentry_ok s code [f; g] [] r /\ zentry_x s code [f; g] [] r }.

Lemma zop_entry : forall s op f g P Q R r,
  ZDen s f P -> ZDen s g Q -> ZDen s r R -> peq R (pbin op P Q) ->
  zentry_ok s (zop_code op) [f; g] [] r /\ zentry_x s (zop_code op) [f; g] [] r.
Proof.
  intros s op f g P Q R r DF DG DR Hp. split.
  - simpl. intros o Ho. apply zop_code_inj in Ho. subst o. exists P, Q.
    split; [exact DF|]. split; [exact DG|]. apply (zden_ext s r R _ DR Hp).
  - apply zentry_x_other; destruct op; discriminate.
Qed.

Lemma pbin_binop : forall op, zbinop_ok (pbin op) (zkeepl op) (zkeepr op) (zcommutes op) (zop_code op).
Proof.
  intros op. split.
  - apply pbin_ext.
  - apply pbin_sup.
  - apply pbin_node_node.
  - destruct op; apply pbin_node_below.
  - destruct op; apply pbin_below_node.
  - intros Hc P Q. apply pbin_comm. exact Hc.
  - destruct op; [reflexivity | reflexivity | discriminate].
  - intros s f g r Ho _. apply (Ho op eq_refl).
  - intros s f g P Q r DF DG DR. apply (zop_entry s op f g P Q _ r DF DG DR). apply peq_refl.
Qed.

Lemma pxor_binop : zbinop_ok pxor true true true zcode_symm.
Proof.
  split; try reflexivity.
  - apply pxor_ext.
  - apply pxor_sup.
  - apply pxor_node_node.
  - apply pxor_node_below.
  - apply pxor_below_node.
  - intros _. apply pxor_comm.
  - intros s f g r _ Hx. apply (Hx eq_refl).
  - intros s f g P Q r DF DG DR. apply (zsymm_entry s f g P Q _ r DF DG DR). apply peq_refl.
Qed.

Definition zcall2_den (sem : fpred -> fpred -> fpred) (s : snap) (L : nat) (k : ref * ref) (X : fpred) : Prop :=
  exists A B, ZDen s (fst k) A /\ ZDen s (snd k) B /\
    L < rlevel s (fst k) /\ L < rlevel s (snd k) /\ peq X (sem A B).

Definition zsw (comm : bool) (f g f' g' : ref) : Prop :=
  (f' = f /\ g' = g) \/ (comm = true /\ f' = g /\ g' = f).

Lemma lcmp_swap : forall a b, lcmp b a = CompOpp (lcmp a b).
Proof.
  intros [x|] [y|]; simpl; try reflexivity. apply Nat.compare_antisym.
Qed.

Section BinRec.
Variable alloc : snap -> positive.
Variable C : Type.
Variable rec : ref -> ref -> sched -> snap -> C -> option (snap * C * ref).
Variables kl kr : bool.

Definition zbin_rec (x : sched) (s : snap) (c : C) (fnode gnode : zview) (f g : ref) : option (snap * C * ref) :=
  match lcmp (vlevel fnode) (vlevel gnode) with
  | Lt =>
    match zkids fnode, vlevel fnode with
    | Some (fhi, flo), Some flevel =>
      if kl then zlo_mk alloc C (rec flo g x s c) flevel fhi else rec flo g x s c
    | _, _ => None
    end
  | Eq =>
    match zkids fnode, zkids gnode, vlevel fnode with
    | Some (fhi, flo), Some (ghi, glo), Some flevel => zjoin alloc C x (rec fhi ghi) (rec flo glo) s c flevel
    | _, _, _ => None
    end
  | Gt =>
    match zkids gnode, vlevel gnode with
    | Some (ghi, glo), Some glevel =>
      if kr then zlo_mk alloc C (rec f glo x s c) glevel ghi else rec f glo x s c
    | _, _ => None
    end
  end.

End BinRec.

(** with [kl = kr] the recursion on the swapped pair takes the mirrored branch *)
Lemma zbin_plan_ex : forall sem kl kr comm code, zbinop_ok sem kl kr comm code ->
  forall s f g vf vg P Q,
  ZbddOK s -> ZDen s f P -> ZDen s g Q -> zget s f = Some vf -> zget s g = Some vg ->
  f <> g -> (forall t, f = RT t -> term_val s t = Some 1%N) -> (forall t, g = RT t -> term_val s t = Some 1%N) ->
  exists p,
    zplan_den _ (zcall2_den sem s (Nat.min (rlevel s f) (rlevel s g))) s (Nat.min (rlevel s f) (rlevel s g)) p (sem P Q) /\
    (forall alloc C rec x c,
       zbin_rec alloc C rec kl kr x s c vf vg f g = zplan_run alloc C _ (fun k => rec (fst k) (snd k)) x s c p) /\
    (kl = kr -> forall alloc C rec x c,
       zbin_rec alloc C rec kl kr x s c vg vf g f = zplan_run alloc C _ (fun k => rec (snd k) (fst k)) x s c p).
Proof.
  intros sem kl kr comm code HB s f g vf vg P Q B DF DG Evf Evg Hne Hf1 Hg1.
  pose proof (zo_wf s B) as H.
  pose proof (lcmp_cases s f g vf vg B Evf Evg) as Hl.
  assert (Den2 : forall L a b A Bp, ZDen s a A -> ZDen s b Bp -> L < rlevel s a -> L < rlevel s b ->
            zcall2_den sem s L (a, b) (sem A Bp))
    by (intros L a b A Bp Da Db La Lb; exists A, Bp; auto 6 using peq_refl).
  unfold zbin_rec. rewrite (lcmp_swap (vlevel vf) (vlevel vg)).
  destruct (lcmp (vlevel vf) (vlevel vg)); simpl CompOpp.
  - destruct Hl as [(idf & ndf & idg & ndg & -> & -> & Enf & Eng & -> & -> & Hlev)|(tf & tg & -> & ->)].
    2:{ exfalso. apply Hne. f_equal.
        apply (term_val_inj s tf tg 1%N H (Hf1 tf eq_refl) (Hg1 tg eq_refl)). }
    destruct (znode_facts s idf ndf P B DF Enf)
      as (Sf & Lf & Rf & fhi & flo & PA & PB & Ecf & DA & DB & LA & LB & HP & SA & SB).
    destruct (znode_facts s idg ndg Q B DG Eng)
      as (Sg & Lg & Rg & ghi & glo & QA & QB & Ecg & DA' & DB' & LA' & LB' & HQ & SA' & SB').
    simpl zkids. simpl vlevel. rewrite Ecf, Ecg, Sf, Sg, Rf, Rg. rewrite <- Hlev in *. rewrite Nat.min_id.
    exists (PJoin (eref fhi, eref ghi) (eref flo, eref glo) (nlevel ndf)).
    split; [|split; reflexivity].
    split; [reflexivity|]. split; [exact Lf|]. exists (sem PA QA), (sem PB QB).
    split; [apply (zb_sup _ _ _ _ _ HB); assumption|]. split; [apply (zb_sup _ _ _ _ _ HB); assumption|].
    split; [apply Den2; assumption|]. split; [apply Den2; assumption|].
    apply (peq_trans _ _ _ (zb_ext _ _ _ _ _ HB _ _ _ _ HP HQ)). apply peq_sym.
    apply (zb_node_node _ _ _ _ _ HB); assumption.
  - destruct Hl as (idf & ndf & -> & Enf & -> & Hlt).
    destruct (znode_facts s idf ndf P B DF Enf)
      as (Sf & Lf & Rf & fhi & flo & PA & PB & Ecf & DA & DB & LA & LB & HP & SA & SB).
    simpl zkids. simpl vlevel. rewrite Ecf, Sf, Rf. rewrite Nat.min_l by lia.
    pose proof (zden_sup s g Q _ B DG Hlt) as SQ.
    pose proof (peq_trans _ _ _ (zb_ext _ _ _ _ _ HB _ _ _ _ HP (peq_refl Q))
                  (zb_node_below _ _ _ _ _ HB _ PA PB Q SB SQ)) as Hp.
    exists (if kl then PLo (eref flo, g) (nlevel ndf) (eref fhi) else PStep (eref flo, g)).
    split; [|split; [|intros <-]; intros; destruct kl; reflexivity].
    destruct kl; cbn [zplan_den].
    + split; [reflexivity|]. split; [exact Lf|]. exists PA, (sem PB Q).
      repeat (split; [first [assumption | apply (zb_sup _ _ _ _ _ HB); assumption | apply Den2; assumption]|]).
      exact Hp.
    + exists PB, Q. auto 6.
  - destruct Hl as (idg & ndg & -> & Eng & -> & Hlt).
    destruct (znode_facts s idg ndg Q B DG Eng)
      as (Sg & Lg & Rg & ghi & glo & QA & QB & Ecg & DA' & DB' & LA' & LB' & HQ & SA' & SB').
    simpl zkids. simpl vlevel. rewrite Ecg, Sg, Rg. rewrite Nat.min_r by lia.
    pose proof (zden_sup s f P _ B DF Hlt) as SP.
    pose proof (peq_trans _ _ _ (zb_ext _ _ _ _ _ HB _ _ _ _ (peq_refl P) HQ)
                  (zb_below_node _ _ _ _ _ HB _ P QA QB SP SB')) as Hp.
    exists (if kr then PLo (f, eref glo) (nlevel ndg) (eref ghi) else PStep (f, eref glo)).
    split; [|split; [|intros ->]; intros; destruct kr; reflexivity].
    destruct kr; cbn [zplan_den].
    + split; [reflexivity|]. split; [exact Lg|]. exists QA, (sem P QB).
      repeat (split; [first [assumption | apply (zb_sup _ _ _ _ _ HB); assumption | apply Den2; assumption]|]).
      exact Hp.
    + exists P, QB. auto 6.
Qed.

(** ** The result predicate and the building blocks of the recursions *)

Section Gen.
Variable alloc : snap -> positive.
Hypothesis Halloc : alloc_ok alloc.
Variable gt : ref -> ref -> bool.
Variable C : Type.
Variable cget : C -> N -> list ref -> list nat -> option ref.
Variable cadd : C -> N -> list ref -> list nat -> ref -> C.
Hypothesis Hlossy : zlossy C cget cadd.

Notation COKB := (ZCacheOKB C cget).

Definition zres_st (s : snap) (res : option (snap * C * ref)) (R : fpred) : Prop :=
  exists s' c' r, res = Some (s', c', r) /\
    ZbddOK s' /\ extends s s' /\ COKB s' c' /\ ZDen s' r R /\
    (* if the result family already has an edge, that edge is returned and the
       table is unchanged *)
    (forall r0, ZDen s r0 R -> s' = s /\ r = r0).

Lemma zres_st_ext : forall s res R R', peq R R' -> zres_st s res R -> zres_st s res R'.
Proof.
  intros s res R R' Hp (s' & c' & r & E & B & X & O & D & St).
  exists s', c', r. repeat (split; [assumption|]). split; [apply (zden_ext s' r R R' D Hp)|].
  intros r0 D0. apply St. apply (zden_ext s r0 R' R D0). apply peq_sym. exact Hp.
Qed.

Lemma zres_st_here : forall s c r R, ZbddOK s -> COKB s c -> ZDen s r R ->
  zres_st s (Some (s, c, r)) R.
Proof.
  intros s c r R B O D. exists s, c, r. split; [reflexivity|]. split; [exact B|].
  split; [apply extends_refl|]. split; [exact O|]. split; [exact D|].
  intros r0 D0. split; [reflexivity|]. apply (zden_canon s r r0 R R B D D0). apply peq_refl.
Qed.

Lemma zres_st_weak : forall s res R, zres_st s res R -> zresult_okB C cget s res R.
Proof.
  intros s res R (s' & c' & r & E & B & X & O & D & _). exists s', c', r. auto.
Qed.

(** a closure of the recursion computes [P] in every later state of table [s]
    (whatever other closures added in the meantime, whatever the cache holds),
    under every schedule *)
Definition zrun_ok (s : snap) (run : sched -> snap -> C -> option (snap * C * ref)) (P : fpred) : Prop :=
  forall x s' c', ZbddOK s' -> extends s s' -> COKB s' c' -> zres_st s' (run x s' c') P.

Lemma zfork2_ok : forall x runH runL s c PA PB,
  ZbddOK s -> COKB s c -> zrun_ok s runH PA -> zrun_ok s runL PB ->
  exists s2 c2 hi lo, fork2 C x runH runL s c = Some (s2, c2, hi, lo) /\
    ZbddOK s2 /\ extends s s2 /\ COKB s2 c2 /\ ZDen s2 hi PA /\ ZDen s2 lo PB /\
    (forall q0 q1, ZDen s q0 PA -> ZDen s q1 PB -> s2 = s /\ hi = q0 /\ lo = q1).
Proof.
  exact (gfork2_ok ref _ ZbddOK ZDen zden_extends C COKB (zcacheokb_extends C cget)).
Qed.

(** [rec.binary(..)] + [reduce] *)
Lemma zjoin_ok : forall x runH runL s c L RA RB,
  ZbddOK s -> COKB s c -> L < nlevels s -> sup L RA -> sup L RB ->
  zrun_ok s runH RA -> zrun_ok s runL RB ->
  zres_st s (zjoin alloc C x runH runL s c L) (node_pred L RA RB).
Proof.
  intros x runH runL s c L RA RB B O HL SA SB HH HLo. unfold zjoin.
  destruct (zfork2_ok x runH runL s c RA RB B O HH HLo)
    as (s2 & c2 & hi & lo & Ef & B2 & X2 & O2 & Dh & Dl & Sf).
  rewrite Ef. destruct (zmk_node_a alloc s2 L hi lo) as [s3 h] eqn:Em.
  assert (HL2 : L < nlevels s2) by (rewrite (ext_nlevels _ _ X2); exact HL).
  assert (Lh2 : L < rlevel s2 hi) by (apply (zden_level s2 hi _ (S L) B2 Dh); [lia | exact SA]).
  assert (Ll2 : L < rlevel s2 lo) by (apply (zden_level s2 lo _ (S L) B2 Dl); [lia | exact SB]).
  destruct (zmk_node_a_ok alloc Halloc s2 L hi lo _ _ s3 h B2 HL2 Dh Dl Lh2 Ll2 Em) as (B3 & X3 & D3 & _ & _).
  exists s3, c2, h. split; [reflexivity|]. split; [exact B3|].
  split; [apply (extends_trans _ _ _ X2 X3)|].
  split; [apply (zcacheokb_extends C cget s2 s3 c2 B2 X3 O2)|]. split; [exact D3|].
  intros r0 D0.
  destruct (zden_node_pred_inv s r0 L RA RB B HL SA SB D0) as (qa & qb & Dqa & Dqb).
  destruct (Sf qa qb Dqa Dqb) as [-> [-> ->]].
  apply (zmk_node_a_stable alloc Halloc s L qa qb RA RB s3 h r0 B HL Dqa Dqb Lh2 Ll2 Em D0).
Qed.

(** a direct recursive call + [reduce_borrowed] under an old hi edge *)
Lemma zlo_mk_ok : forall s res R L hi PA,
  ZbddOK s -> zres_st s res R -> L < nlevels s -> ZDen s hi PA -> L < rlevel s hi ->
  sup L PA -> sup L R ->
  zres_st s (zlo_mk alloc C res L hi) (node_pred L PA R).
Proof.
  intros s res R L hi PA B (s1 & c1 & lo & E & B1 & X1 & O1 & D1 & S1) HL DA Lh SA SR. subst res.
  unfold zlo_mk. destruct (zmk_node_a alloc s1 L hi lo) as [s2 h] eqn:Em.
  pose proof (zden_extends s s1 hi PA B X1 DA) as DA1.
  assert (HL1 : L < nlevels s1) by (rewrite (ext_nlevels _ _ X1); exact HL).
  assert (Lh1 : L < rlevel s1 hi) by (rewrite (ext_rlevel _ _ _ X1 (zden_ok _ _ _ DA)); exact Lh).
  assert (Ll1 : L < rlevel s1 lo) by (apply (zden_level s1 lo R (S L) B1 D1); [lia | exact SR]).
  destruct (zmk_node_a_ok alloc Halloc s1 L hi lo PA R s2 h B1 HL1 DA1 D1 Lh1 Ll1 Em) as (B2 & X2 & D2 & _ & _).
  exists s2, c1, h. split; [reflexivity|]. split; [exact B2|].
  split; [apply (extends_trans _ _ _ X1 X2)|].
  split; [apply (zcacheokb_extends C cget s1 s2 c1 B1 X2 O1)|]. split; [exact D2|].
  intros r0 D0.
  destruct (zden_node_pred_inv s r0 L PA R B HL SA SR D0) as (qa & qb & _ & Dqb).
  destruct (S1 qb Dqb) as [-> ->].
  apply (zmk_node_a_stable alloc Halloc s L hi qb PA R s2 h r0 B HL DA Dqb Lh Ll1 Em D0).
Qed.

(** storing a result in the cache *)
Lemma zfin_ok : forall s res R code args,
  ZbddOK s -> zres_st s res R ->
  (forall s' r, ZbddOK s' -> extends s s' -> ZDen s' r R ->
     zentry_ok s' code args [] r /\ zentry_x s' code args [] r) ->
  zres_st s (zfin C cadd res code args) R.
Proof.
  intros s res R code args B (s' & c' & h & E & B' & X & O & D & St) He. subst res.
  exists s', (cadd c' code args [] h), h.
  split; [reflexivity|]. split; [exact B'|]. split; [exact X|]. split; [|split; [exact D | exact St]].
  destruct (He s' h B' X D) as [A A']. apply (zcacheokb_add C cget cadd Hlossy); assumption.
Qed.

Lemma zplan_run_ok : forall K (call : K -> sched -> snap -> C -> option (snap * C * ref))
    (den : K -> fpred -> Prop) x s c L p X,
  ZbddOK s -> COKB s c -> (forall k Y, den k Y -> zrun_ok s (call k) Y) -> zplan_den K den s L p X ->
  zres_st s (zplan_run alloc C K call x s c p) X.
Proof.
  intros K call den x s c L p X B O Run Dp.
  destruct p as [k|k lv hi|kh kl lv]; cbn [zplan_den zplan_run] in Dp |- *.
  - apply (Run k X Dp x s c B (extends_refl s) O).
  - destruct Dp as (-> & HL & HI & LO & Dhi & Lhi & SH & SL & Dk & HX).
    apply (zres_st_ext s _ (node_pred L HI LO)); [apply peq_sym; exact HX|].
    apply zlo_mk_ok; auto. apply (Run k LO Dk x s c B (extends_refl s) O).
  - destruct Dp as (-> & HL & HI & LO & SH & SL & Dh & Dl & HX).
    apply (zres_st_ext s _ (node_pred L HI LO)); [apply peq_sym; exact HX|].
    apply zjoin_ok; auto.
Qed.

Definition zcore (rec : ref -> ref -> sched -> snap -> C -> option (snap * C * ref)) (kl kr : bool) (code : N)
    (x : sched) (s : snap) (c : C) (f g : ref) : option (snap * C * ref) :=
  match cget c code [f; g] [] with
  | Some h => Some (s, c, h)
  | None =>
    match zget s f, zget s g with
    | Some fnode, Some gnode => zfin C cadd (zbin_rec alloc C rec kl kr x s c fnode gnode f g) code [f; g]
    | _, _ => None
    end
  end.

Section BinOp.
Variable sem : fpred -> fpred -> fpred.
Variables kl kr comm : bool.
Variable code : N.
Hypothesis HB : zbinop_ok sem kl kr comm code.

Definition zbin_ok_at (rec : ref -> ref -> sched -> snap -> C -> option (snap * C * ref)) (fuel : nat) : Prop :=
  forall x s c f g P Q, ZbddOK s -> COKB s c -> ZDen s f P -> ZDen s g Q ->
    nlevels s - Nat.min (rlevel s f) (rlevel s g) < fuel -> zres_st s (rec f g x s c) (sem P Q).

Lemma zcall2_run_ok : forall rec fuel s L k X,
  zbin_ok_at rec fuel -> ZbddOK s -> nlevels s - L <= fuel -> zcall2_den sem s L k X ->
  zrun_ok s (rec (fst k) (snd k)) X.
Proof.
  intros rec fuel s L [a b] X IH B Hn (PA & PB & Da & Db & La & Lb & HX) x' s' c' B' X' O'. simpl in *.
  apply (zres_st_ext s' _ (sem PA PB)); [apply peq_sym; exact HX|].
  apply IH; auto; try (apply (zden_extends s s' _ _ B X'); assumption).
  rewrite (ext_nlevels _ _ X'), (ext_rlevel _ _ _ X' (zden_ok _ _ _ Da)), (ext_rlevel _ _ _ X' (zden_ok _ _ _ Db)).
  pose proof (rlevel_le s (zo_wf s B) a). lia.
Qed.

Lemma zcore_ok : forall rec n x s c f g P Q,
  zbin_ok_at rec n -> ZbddOK s -> COKB s c -> ZDen s f P -> ZDen s g Q ->
  f <> g -> (forall t, f = RT t -> term_val s t = Some 1%N) -> (forall t, g = RT t -> term_val s t = Some 1%N) ->
  nlevels s - Nat.min (rlevel s f) (rlevel s g) < S n ->
  zres_st s (zcore rec kl kr code x s c f g) (sem P Q).
Proof.
  intros rec n x s c f g P Q IH B O DF DG Hne Hf1 Hg1 Hfuel. unfold zcore.
  destruct (cget c code [f; g] []) as [h|] eqn:Ec.
  - destruct (O _ _ _ _ Ec) as [Oe Ox].
    destruct (zb_hit _ _ _ _ _ HB s f g h Oe Ox) as (P0 & Q0 & D0 & D0' & Dh).
    apply zres_st_here; auto. apply (zden_ext s h _ _ Dh).
    apply (zb_ext _ _ _ _ _ HB); [apply (zden_unique s f P0 P D0 DF) | apply (zden_unique s g Q0 Q D0' DG)].
  - destruct (zget_total s f (zden_ok _ _ _ DF)) as [vf Evf].
    destruct (zget_total s g (zden_ok _ _ _ DG)) as [vg Evg].
    rewrite Evf, Evg.
    apply zfin_ok; [exact B| |].
    2:{ intros s' r B' X DR. apply (zb_entry _ _ _ _ _ HB s' f g P Q r); auto; apply (zden_extends s s' _ _ B X); assumption. }
    destruct (zbin_plan_ex sem kl kr comm code HB s f g vf vg P Q B DF DG Evf Evg Hne Hf1 Hg1) as (p & Dp & Ep & _).
    rewrite Ep. apply (zplan_run_ok _ _ _ x s c _ p _ B O) with (2 := Dp).
    intros k Y Dk. apply (zcall2_run_ok rec n s _ k Y IH B) with (2 := Dk). lia.
Qed.

Lemma zcore_norm_ok : forall rec (sw : bool) n x s c f g P Q,
  zbin_ok_at rec n -> ZbddOK s -> COKB s c -> ZDen s f P -> ZDen s g Q ->
  f <> g -> (forall t, f = RT t -> term_val s t = Some 1%N) -> (forall t, g = RT t -> term_val s t = Some 1%N) ->
  nlevels s - Nat.min (rlevel s f) (rlevel s g) < S n -> (sw = true -> comm = true) ->
  zres_st s (let '(f, g) := if sw then (g, f) else (f, g) in zcore rec kl kr code x s c f g) (sem P Q).
Proof.
  intros rec sw n x s c f g P Q IH B O DF DG Hne Hf1 Hg1 Hfuel Hsw. destruct sw.
  - apply (zres_st_ext s _ (sem Q P)); [apply (zb_comm _ _ _ _ _ HB); auto|].
    apply (zcore_ok rec n); auto. rewrite Nat.min_comm. exact Hfuel.
  - apply (zcore_ok rec n); auto.
Qed.

End BinOp.

(** ** union, intersection, difference *)

Lemma zapply_g_S : forall n x s c op f g,
  zapply_g alloc gt C cget cadd (S n) x s c op f g =
    match zterminal s op f g with
    | ZTFail => None
    | ZTDone r => Some (s, c, r)
    | ZTGo =>
      let '(f, g) := if zcommutes op && gt f g then (g, f) else (f, g) in
      zcore (fun a b x' s' c' => zapply_g alloc gt C cget cadd n x' s' c' op a b)
        (zkeepl op) (zkeepr op) (zop_code op) x s c f g
    end.
Proof. intros n x s c op f g. destruct op; reflexivity. Qed.

Theorem zapply_g_ok : forall op fuel x s c f g P Q,
  ZbddOK s -> COKB s c -> ZDen s f P -> ZDen s g Q ->
  nlevels s - Nat.min (rlevel s f) (rlevel s g) < fuel ->
  zres_st s (zapply_g alloc gt C cget cadd fuel x s c op f g) (pbin op P Q).
Proof.
  intros op. induction fuel as [|n IH]; intros x s c f g P Q B O DF DG Hfuel; [lia|].
  rewrite zapply_g_S.
  pose proof (zterminal_ok s op f g P Q B DF DG) as Ht.
  destruct (zterminal s op f g) as [|r|]; [destruct Ht | apply zres_st_here; assumption |].
  destruct Ht as [Hne [Hf1 Hg1]].
  apply (zcore_norm_ok _ _ _ _ _ (pbin_binop op) (fun a b x' s' c' => zapply_g alloc gt C cget cadd n x' s' c' op a b) _ n);
    auto.
  intros Hsw. apply andb_true_iff in Hsw. apply Hsw.
Qed.

(** ** Negation *)

Theorem zapply_not_g_ok : forall fuel x s c f P,
  ZbddOK s -> ZChainOK s -> COKB s c -> ZDen s f P -> nlevels s < fuel ->
  zres_st s (zapply_not_g alloc gt C cget cadd fuel x s c f) (pbin ZDiff (pall (nlevels s) 0) P).
Proof.
  intros fuel x s c f P B Hc O D Hf. unfold zapply_not_g.
  destruct (ztaut_total s 0 Hc) as [t Et]. rewrite Et.
  pose proof (ztaut_den s 0 t B Et) as Dt. rewrite Nat.min_0_l in Dt.
  apply zapply_g_ok; auto. lia.
Qed.

(** ** [apply_symm_diff] *)

Lemma zsymm_g_S : forall n x s c f g,
  zsymm_g alloc gt C cget cadd (S n) x s c f g =
    match zempty s with
    | None => None
    | Some empty =>
      if ref_eqb f g then Some (s, c, empty)
      else if ref_eqb f empty then Some (s, c, g)
      else if ref_eqb g empty then Some (s, c, f)
      else
        let '(f, g) := if gt f g then (g, f) else (f, g) in
        zcore (fun a b x' s' c' => zsymm_g alloc gt C cget cadd n x' s' c' a b) true true zcode_symm x s c f g
    end.
Proof. reflexivity. Qed.

Theorem zsymm_g_ok : forall fuel x s c f g P Q,
  ZbddOK s -> COKB s c -> ZDen s f P -> ZDen s g Q ->
  nlevels s - Nat.min (rlevel s f) (rlevel s g) < fuel ->
  zres_st s (zsymm_g alloc gt C cget cadd fuel x s c f g) (pxor P Q).
Proof.
  induction fuel as [|n IH]; intros x s c f g P Q B O DF DG Hfuel; [lia|].
  rewrite zsymm_g_S.
  destruct (zempty_spec s B) as [te [Ee Et]]. rewrite Ee.
  pose proof (zden_empty s te B Et) as DE.
  destruct (ref_eqb f g) eqn:E1.
  { apply ref_eqb_eq in E1. subst g. apply zres_st_here; auto.
    apply (zden_ext s _ pempty); [exact DE|]. intros S.
    rewrite (pxor_ext P P Q P (peq_refl P) (zden_unique s f Q P DG DF) S). symmetry. apply pxor_same. }
  destruct (ref_eqb f (RT te)) eqn:E2.
  { apply ref_eqb_eq in E2. subst f. apply zres_st_here; auto.
    apply (zden_ext s g Q); [exact DG|]. intros S.
    rewrite (pxor_ext P pempty Q Q (zden_unique s _ P pempty DF DE) (peq_refl Q) S). symmetry. apply pxor_empty_l. }
  destruct (ref_eqb g (RT te)) eqn:E3.
  { apply ref_eqb_eq in E3. subst g. apply zres_st_here; auto.
    apply (zden_ext s f P); [exact DF|]. intros S.
    rewrite (pxor_ext P P Q pempty (peq_refl P) (zden_unique s _ Q pempty DG DE) S). symmetry. apply pxor_empty_r. }
  apply ref_eqb_false in E1. apply ref_eqb_false in E2. apply ref_eqb_false in E3.
  apply (zcore_norm_ok _ _ _ _ _ pxor_binop (fun a b x' s' c' => zsymm_g alloc gt C cget cadd n x' s' c' a b) _ n); auto.
  - intros t ->. apply (not_empty_base s te t B Et (zden_ok _ _ _ DF) E2).
  - intros t ->. apply (not_empty_base s te t B Et (zden_ok _ _ _ DG) E3).
Qed.

End Gen.

Arguments zres_st {C}.
Arguments zrun_ok {C}.
Arguments zbin_ok_at {C}.

(** ** The sequential configuration with [fresh_id] is the model of DD/ZbddOps.v / DD/ZbddBool.v *)

Lemma zmk_node_a_fresh : forall s lvl hi lo, zmk_node_a fresh_id s lvl hi lo = zmk_node s lvl hi lo.
Proof. reflexivity. Qed.

Section Seq.
Variable gt : ref -> ref -> bool.
Variable C : Type.
Variable cget : C -> N -> list ref -> list nat -> option ref.
Variable cadd : C -> N -> list ref -> list nat -> ref -> C.

Local Ltac strip_fin :=
  unfold zfin;
  match goal with
  | |- match ?a with _ => _ end = match ?b with _ => _ end =>
    let Hx := fresh "Hx" in assert (Hx : a = b); [|rewrite Hx; reflexivity]
  end.

Lemma zjoin_seq : forall runH runL runH' runL' s c lvl,
  (forall s' c', runH SSeq s' c' = runH' s' c') -> (forall s' c', runL SSeq s' c' = runL' s' c') ->
  zjoin fresh_id C SSeq runH runL s c lvl =
  match runH' s c with
  | None => None
  | Some (s1, c1, hi) =>
    match runL' s1 c1 with
    | None => None
    | Some (s2, c2, lo) => let '(s3, h) := zmk_node s2 lvl hi lo in Some (s3, c2, h)
    end
  end.
Proof.
  intros runH runL runH' runL' s c lvl HH HL. unfold zjoin, fork2. simpl.
  rewrite HH. destruct (runH' s c) as [[[s1 c1] t]|]; [|reflexivity].
  rewrite HL. destruct (runL' s1 c1) as [[[s2 c2] e]|]; reflexivity.
Qed.

Theorem zapply_g_seq : forall fuel s c op f g,
  zapply_g fresh_id gt C cget cadd fuel SSeq s c op f g = zapply gt C cget cadd fuel s c op f g.
Proof.
  induction fuel as [|n IH]; intros s c op f g; [reflexivity|].
  rewrite zapply_g_S, zapply_S. unfold zcore, zbin_rec.
  destruct (zterminal s op f g); try reflexivity.
  destruct (if zcommutes op && gt f g then (g, f) else (f, g)) as [f' g'].
  destruct (cget c (zop_code op) [f'; g'] []); [reflexivity|].
  destruct (zget s f') as [vf|]; [|reflexivity]. destruct (zget s g') as [vg|]; [|reflexivity].
  cbv zeta. strip_fin.
  destruct (lcmp (vlevel vf) (vlevel vg)).
  - destruct (zkids vf) as [[fhi flo]|]; [|reflexivity].
    destruct (zkids vg) as [[ghi glo]|]; [|reflexivity].
    destruct (vlevel vf) as [fl|]; [|reflexivity].
    apply (zjoin_seq _ _ (fun s' c' => zapply gt C cget cadd n s' c' op fhi ghi)
                         (fun s' c' => zapply gt C cget cadd n s' c' op flo glo)); intros; apply IH.
  - destruct (zkids vf) as [[fhi flo]|]; [|reflexivity].
    destruct (vlevel vf) as [fl|]; [|reflexivity].
    unfold zlo_mk. rewrite IH. destruct op; reflexivity.
  - destruct (zkids vg) as [[ghi glo]|]; [|reflexivity].
    destruct (vlevel vg) as [gl|]; [|reflexivity].
    unfold zlo_mk. rewrite IH. destruct op; reflexivity.
Qed.

Theorem zapply_not_g_seq : forall fuel s c f,
  zapply_not_g fresh_id gt C cget cadd fuel SSeq s c f = zapply_not gt C cget cadd fuel s c f.
Proof.
  intros fuel s c f. unfold zapply_not_g, zapply_not. destruct (ztaut s 0); [apply zapply_g_seq | reflexivity].
Qed.

Theorem zsymm_g_seq : forall fuel s c f g,
  zsymm_g fresh_id gt C cget cadd fuel SSeq s c f g = zsymm gt C cget cadd fuel s c f g.
Proof.
  induction fuel as [|n IH]; intros s c f g; [reflexivity|].
  rewrite zsymm_g_S, zsymm_S. unfold zcore, zbin_rec.
  destruct (zempty s) as [empty|]; [|reflexivity].
  destruct (ref_eqb f g); [reflexivity|]. destruct (ref_eqb f empty); [reflexivity|].
  destruct (ref_eqb g empty); [reflexivity|].
  destruct (if gt f g then (g, f) else (f, g)) as [f' g'].
  destruct (cget c zcode_symm [f'; g'] []); [reflexivity|].
  destruct (zget s f') as [vf|]; [|reflexivity]. destruct (zget s g') as [vg|]; [|reflexivity].
  cbv zeta. strip_fin.
  destruct (lcmp (vlevel vf) (vlevel vg)).
  - destruct (zkids vf) as [[fhi flo]|]; [|reflexivity].
    destruct (zkids vg) as [[ghi glo]|]; [|reflexivity].
    destruct (vlevel vf) as [fl|]; [|reflexivity].
    apply (zjoin_seq _ _ (fun s' c' => zsymm gt C cget cadd n s' c' fhi ghi)
                         (fun s' c' => zsymm gt C cget cadd n s' c' flo glo)); intros; apply IH.
  - destruct (zkids vf) as [[fhi flo]|]; [|reflexivity].
    destruct (vlevel vf) as [fl|]; [|reflexivity].
    unfold zlo_mk. rewrite IH. reflexivity.
  - destruct (zkids vg) as [[ghi glo]|]; [|reflexivity].
    destruct (vlevel vg) as [gl|]; [|reflexivity].
    unfold zlo_mk. rewrite IH. reflexivity.
Qed.

End Seq.

Section Alloc.
Variable alloc : snap -> positive.
Hypothesis Halloc : alloc_ok alloc.

Lemma zdc_wrap_a_ok : forall cnt lvl s e (R : fpred) s' r,
  ZbddOK s -> lvl + cnt <= nlevels s ->
  ZDen s e (fun S => R S /\ incr_from (lvl + cnt) S) ->
  (exists S, R S /\ incr_from (lvl + cnt) S) ->
  (forall S, R S -> incr_from lvl S) ->
  (forall l T, lvl <= l < lvl + cnt -> incr_from (Datatypes.S l) T -> (R (l :: T) <-> R T)) ->
  zdc_wrap_a alloc lvl cnt s e = (s', r) ->
  ZbddOK s' /\ extends s s' /\ ZDen s' r R.
Proof.
  induction cnt as [|k IH]; intros lvl s e R s' r B Hn De Hex Hi Hopt Ew.
  - simpl in Ew. inversion Ew; subst s' r. split; [exact B|]. split; [apply extends_refl|].
    apply (zden_ext s e _ _ De). intros S. rewrite Nat.add_0_r. split; [intros [A _]; exact A|].
    intros A. split; [exact A | apply Hi; exact A].
  - simpl in Ew. set (L := lvl + k) in *.
    replace (lvl + S k) with (S L) in * by (unfold L; lia).
    destruct Hex as [S0 [HS0 HI0]].
    assert (Hne : is_empty_b s e = false) by (apply (nonempty_not_empty s e _ S0 B De); auto).
    assert (Hlev : L < rlevel s e).
    { apply (zden_level s e _ (S L) B De); [lia|]. intros S [_ HS]. exact HS. }
    destruct (get_or_insert_a alloc s L [E e; E e]) as [s1 e1] eqn:Eg.
    assert (Em : zmk_node_a alloc s L e e = (s1, eref e1)) by (unfold zmk_node_a; rewrite Hne, Eg; reflexivity).
    destruct (zmk_node_a_ok alloc Halloc s L e e _ _ s1 (eref e1) B ltac:(lia) De De Hlev Hlev Em) as (B1 & X1 & D1 & _).
    assert (Hq : peq (node_pred L (fun Z => R Z /\ incr_from (S L) Z) (fun Z => R Z /\ incr_from (S L) Z))
                     (fun S => R S /\ incr_from L S)).
    { intros S. unfold node_pred. split.
      - intros [[T [-> [HT HI]]]|[HS HI]].
        + split; [apply (Hopt L T); [unfold L; lia | exact HI | exact HT] | simpl; split; [lia | exact HI]].
        + split; [exact HS | apply (incr_from_weaken S (Datatypes.S L)); [lia | exact HI]].
      - intros [HS HI]. destruct S as [|x T]; [right; split; [exact HS | exact I]|].
        simpl in HI. destruct HI as [Hx HT]. destruct (Nat.eq_dec x L) as [->|Hne'].
        + left. exists T. split; [reflexivity|]. split; [|exact HT].
          apply (Hopt L T); [unfold L; lia | exact HT | exact HS].
        + right. split; [exact HS|]. simpl. split; [lia | exact HT]. }
    pose proof (zden_ext s1 _ _ _ D1 Hq) as D1'.
    destruct (IH lvl s1 (eref e1) R s' r B1) as (B' & X' & D'); auto.
    + rewrite (ext_nlevels _ _ X1). unfold L in *. lia.
    + exists S0. split; [exact HS0|]. apply (incr_from_weaken S0 (Datatypes.S L)); [unfold L; lia | exact HI0].
    + intros l T Hl HT. apply Hopt; [lia | exact HT].
    + split; [exact B'|]. split; [apply (extends_trans _ _ _ X1 X')|exact D'].
Qed.

Theorem zvar_a_ok : forall s var L, ZbddOK s -> ZChainOK s -> nth_error (s_v2l s) var = Some L ->
  exists s' r, zvar_a alloc s var = Some (s', r) /\
    ZbddOK s' /\ extends s s' /\ ZDen s' r (pvar (nlevels s) L).
Proof.
  intros s var L B Hc Ev. pose proof (zo_wf s B) as H.
  pose proof (v2l_range s var L H Ev) as HL. set (n := nlevels s) in *.
  destruct (zempty_spec s B) as [te [Ee Ete]].
  destruct (ztaut_total s (S L) Hc) as [hi Ehi].
  pose proof (ztaut_den s (S L) hi B Ehi) as Dhi. fold n in Dhi. rewrite Nat.min_l in Dhi by lia.
  pose proof (zden_empty s te B Ete) as Dlo.
  unfold zvar_a. rewrite Ev, Ee, Ehi.
  assert (Hne : is_empty_b s hi = false).
  { apply (nonempty_not_empty s hi _ [] B Dhi). split; [exact I | constructor]. }
  destruct (get_or_insert_a alloc s L [E hi; E (RT te)]) as [s1 e1] eqn:Eg.
  assert (Em : zmk_node_a alloc s L hi (RT te) = (s1, eref e1)) by (unfold zmk_node_a; rewrite Hne, Eg; reflexivity).
  assert (Lh : L < rlevel s hi).
  { apply (zden_level s hi _ (S L) B Dhi); [fold n; lia|]. intros S [Hi _]. exact Hi. }
  destruct (zmk_node_a_ok alloc Halloc s L hi (RT te) _ _ s1 (eref e1) B HL Dhi Dlo Lh ltac:(simpl; exact HL) Em)
    as (B1 & X1 & D1 & _).
  destruct (zdc_wrap_a alloc 0 L s1 (eref e1)) as [s' r] eqn:Ew.
  assert (Hq : peq (node_pred L (pall n (S L)) pempty) (fun S => pvar n L S /\ incr_from (0 + L) S)).
  { intros S. unfold node_pred, pempty, pvar. simpl plus. split.
    - intros [[T [-> HT]]|[]]. split; [split|].
      + apply (pall_weaken n L 0); [lia|]. apply (pall_cons n L T HL). exact HT.
      + left. reflexivity.
      + simpl. split; [lia | apply HT].
    - intros [[Hp Hin] Hi]. left. destruct S as [|x T]; [destruct Hin|].
      simpl in Hi. destruct Hi as [Hx HT].
      assert (x = L).
      { destruct Hin as [->|Hin]; [reflexivity|]. pose proof (incr_from_ge T (Datatypes.S x) L HT Hin). lia. }
      subst x. exists T. split; [reflexivity|]. split; [exact HT|].
      destruct Hp as [_ Hb]. inversion Hb; assumption. }
  destruct (zdc_wrap_a_ok L 0 s1 (eref e1) (pvar n L) s' r B1) as (B' & X' & D'); auto.
  - rewrite (ext_nlevels _ _ X1). fold n. simpl. lia.
  - apply (zden_ext s1 _ _ _ D1 Hq).
  - exists [L]. split; [split|].
    + split; [simpl; split; [lia | exact I] | constructor; [exact HL | constructor]].
    + left. reflexivity.
    + simpl. split; [lia | exact I].
  - intros S [[Hi _] _]. exact Hi.
  - intros l T Hl HT. unfold pvar, pall. simpl. split.
    + intros [[[_ Hi] Hb] Hin]. inversion Hb; subst. split; [split; [|assumption]|].
      * apply (incr_from_weaken T (Datatypes.S l)); [lia | exact Hi].
      * destruct Hin as [->|Hin]; [lia | exact Hin].
    + intros [[Hi Hb] Hin]. split; [split|].
      * split; [lia | exact HT].
      * constructor; [fold n; lia | exact Hb].
      * right. exact Hin.
  - exists s', r. split; [reflexivity|]. split; [exact B'|].
    split; [apply (extends_trans _ _ _ X1 X') | exact D'].
Qed.

Lemma zvar_a_none : forall s var, nth_error (s_v2l s) var = None -> zvar_a alloc s var = None.
Proof. intros s var E. unfold zvar_a. rewrite E. reflexivity. Qed.

Section NotVar.
Variable gt : ref -> ref -> bool.
Variable C : Type.
Variable cget : C -> N -> list ref -> list nat -> option ref.
Variable cadd : C -> N -> list ref -> list nat -> ref -> C.
Hypothesis Hlossy : zlossy C cget cadd.

Theorem znot_var_g_ok : forall fuel x s c var L, ZbddOK s -> ZChainOK s -> ZCacheOKB C cget s c ->
  nth_error (s_v2l s) var = Some L -> nlevels s < fuel ->
  zresult_okB C cget s (znot_var_g alloc gt C cget cadd fuel x s c var)
    (pbin ZDiff (pall (nlevels s) 0) (pvar (nlevels s) L)).
Proof.
  intros fuel x s c var L B Hc O Ev Hf.
  destruct (zvar_a_ok s var L B Hc Ev) as (s1 & e & Ez & B1 & X1 & D1).
  unfold znot_var_g. rewrite Ez.
  pose proof (ext_nlevels _ _ X1) as Hn.
  destruct (zapply_not_g_ok alloc Halloc gt C cget cadd Hlossy fuel x s1 c e _ B1 (zchain_extends s s1 B B1 X1 Hc)
              (zcacheokb_extends C cget s s1 c B X1 O) D1 ltac:(lia))
    as (s2 & c2 & r2 & E2 & B2 & X2 & O2 & D2 & _).
  exists s2, c2, r2. split; [exact E2|]. split; [exact B2|].
  split; [apply (extends_trans _ _ _ X1 X2)|]. split; [exact O2|]. rewrite Hn in D2. exact D2.
Qed.

Lemma znot_var_g_none : forall fuel x s c var, nth_error (s_v2l s) var = None ->
  znot_var_g alloc gt C cget cadd fuel x s c var = None.
Proof. intros fuel x s c var E. unfold znot_var_g. rewrite (zvar_a_none s var E). reflexivity. Qed.

End NotVar.
End Alloc.

Lemma zdc_wrap_a_fresh : forall cnt lvl s e, zdc_wrap_a fresh_id lvl cnt s e = zdc_wrap lvl cnt s e.
Proof.
  induction cnt as [|k IH]; intros lvl s e; [reflexivity|]. simpl.
  change (get_or_insert_a fresh_id s (lvl + k) [E e; E e]) with (get_or_insert s (lvl + k) [E e; E e]).
  destruct (get_or_insert s (lvl + k) [E e; E e]) as [s1 e1]. apply IH.
Qed.

Lemma zvar_a_fresh : forall s var, zvar_a fresh_id s var = zvar s var.
Proof.
  intros s var. unfold zvar_a, zvar.
  destruct (nth_error (s_v2l s) var) as [level|]; [|reflexivity].
  destruct (zempty s) as [lo|]; [|reflexivity]. destruct (ztaut s (S level)) as [hi|]; [|reflexivity].
  change (get_or_insert_a fresh_id s level [E hi; E lo]) with (get_or_insert s level [E hi; E lo]).
  destruct (get_or_insert s level [E hi; E lo]) as [s1 e]. rewrite zdc_wrap_a_fresh. reflexivity.
Qed.

Lemma znot_var_g_seq : forall gt C cget cadd fuel s (c : C) var,
  znot_var_g fresh_id gt C cget cadd fuel SSeq s c var = znot_var gt C cget cadd fuel s c var.
Proof.
  intros gt C cget cadd fuel s c var. unfold znot_var_g, znot_var. rewrite zvar_a_fresh.
  destruct (zvar s var) as [[s1 e]|]; [apply zapply_not_g_seq | reflexivity].
Qed.
