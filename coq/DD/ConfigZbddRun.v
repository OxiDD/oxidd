(** * C20x: whole API-call histories of a ZBDD manager (Boolean interface) under two arbitrary configurations

    The ZBDD counterpart of DD/ConfigRun.v, for [zmstep] / [zrun_ops] of
    DD/ConfigZbdd.v:

    - [zsim s1 s2]: both tables are well-formed ZBDD tables with their tautology
      chain, the same variable order, the same handle slots, and the two
      references of every slot denote the same family;
    - [zmstep_sim] / [zrun_ops_sim]: every API call and every history preserves
      [zsim], whatever the two configurations are; the two runs fail together;
    - [zsim_observe]: under [zsim] the observables agree (slots, Boolean view
      of every handle under every choice, node count, variable order), both
      tables satisfy [wf_b];
    - [zrun_ops_cache_exact]: configurations that differ in the apply cache and
      the operand order only end with the identical table. *)

From Coq Require Import List NArith PArith Bool Arith Lia FMapPositive.
From OxiVerif Require Import DD.Table DD.TableExtra DD.TableProofs DD.Sem DD.Build DD.BuildProofs DD.PickInsert
  DD.Apply DD.ApplyProofs DD.CanonZbdd DD.FamSpec DD.FamSpecProofs DD.ZbddOps DD.ZbddOpsProofs
  DD.ZbddSubsetProofs DD.ZbddSoundProofs DD.ZbddVars DD.ZbddVarsProofs DD.ZbddBool DD.ZbddBoolProofs
  DD.ZbddXorProofs DD.ZbddIteProofs DD.ZbddEvalProofs DD.Iso
  DD.ConfigApply DD.ConfigProofs DD.ConfigInsert DD.ConfigZbdd DD.ConfigZbddProofs DD.ConfigZbddIte
  DD.ConfigZbddCache DD.ConfigZbddCacheIte DD.ConfigZbddIndep.
Import ListNotations.

(** ** Changing the handle list *)

Lemma famz_set_handles : forall s hs f r, famz (set_handles s hs) f r = famz s f r.
Proof.
  intros s hs. induction f as [|f IH]; intros r.
  - destruct r as [t|id]; [rewrite !famz_T; reflexivity | reflexivity].
  - destruct r as [t|id]; [rewrite !famz_T; reflexivity|].
    rewrite !famz_S. change (find_node (set_handles s hs) id) with (find_node s id).
    destruct (find_node s id) as [nd|]; [|reflexivity].
    destruct (nchildren nd) as [|hi [|lo [|x rest]]]; try reflexivity.
    rewrite !IH. reflexivity.
Qed.

Lemma zden_set_handles : forall s hs r P, ZDen s r P <-> ZDen (set_handles s hs) r P.
Proof.
  intros s hs r P. unfold ZDen, fam_of. change (nlevels (set_handles s hs)) with (nlevels s).
  rewrite famz_set_handles. reflexivity.
Qed.

Lemma zbddok_set_handles : forall s hs, ZbddOK s ->
  (forall h, In h hs -> ref_ok s (eref (snd h)) /\ etag (snd h) = false) -> ZbddOK (set_handles s hs).
Proof.
  intros s hs B Hh. constructor.
  - apply wf_set_handles; [apply (zo_wf s B)|]. intros h Hin. destruct (Hh h Hin) as [A T]. auto.
  - exact (zo_kind s B).
  - exact (zo_codes s B).
  - exact (zo_empty s B).
  - exact (zo_base s B).
Qed.

Lemma ztaut_up_set_handles : forall s hs k, ztaut_up (set_handles s hs) k = ztaut_up s k.
Proof.
  intros s hs. induction k as [|k IH]; [reflexivity|]. simpl. rewrite IH. reflexivity.
Qed.

Lemma zchain_set_handles : forall s hs, ZChainOK s -> ZChainOK (set_handles s hs).
Proof.
  intros s hs Hc. unfold ZChainOK, zchain_ok_b, ztaut in *.
  change (nlevels (set_handles s hs)) with (nlevels s). rewrite ztaut_up_set_handles. exact Hc.
Qed.

Lemma zcube_set_handles : forall s hs M lvl vars, ZCube s M lvl vars -> ZCube (set_handles s hs) M lvl vars.
Proof.
  intros s hs M lvl vars Hc. induction Hc.
  - apply ZC_term; assumption.
  - eapply ZC_dc; eauto.
  - eapply ZC_pos; eauto.
Qed.

Lemma zcacheokb_set_handles : forall C (cget : C -> N -> list ref -> list nat -> option ref) s hs c,
  ZCacheOKB C cget s c -> ZCacheOKB C cget (set_handles s hs) c.
Proof.
  intros C cget s hs c O code args nums r E. destruct (O _ _ _ _ E) as [A A']. split.
  - unfold zentry_ok in *. destruct args as [|f [|g [|x rest]]]; auto.
    + destruct nums as [|var [|y rest]]; auto.
      intros o Hc. destruct (A o Hc) as [P [vl [Ev [D1 D2]]]]. exists P, vl.
      split; [exact Ev|]. split; apply zden_set_handles; assumption.
    + destruct nums as [|var rest]; auto.
      intros o Hc. destruct (A o Hc) as [P [Q [D1 [D2 D3]]]]. exists P, Q.
      split; [|split]; apply zden_set_handles; assumption.
  - unfold zentry_x in *. destruct args as [|f [|g [|h [|x rest]]]]; auto; destruct nums as [|v [|w rest']]; auto.
    + intros Hc. destruct (A' Hc) as (P & Q & DF & DG & DR). exists P, Q.
      split; [|split]; apply zden_set_handles; assumption.
    + intros Hc Hv. destruct (A' Hc Hv) as (P & id & nd & M & DF & -> & En & Hcu & DR).
      exists P, id, nd, M. split; [apply zden_set_handles; exact DF|]. split; [reflexivity|].
      split; [exact En|]. split; [apply zcube_set_handles; exact Hcu|].
      apply zden_set_handles. exact DR.
    + intros Hc. destruct (A' Hc) as (P & Q & R & DF & DG & DH & DR). exists P, Q, R.
      split; [|split; [|split]]; apply zden_set_handles; assumption.
Qed.

Lemma z_handle_ok : forall s h, ZbddOK s -> In h (s_handles s) ->
  ref_ok s (eref (snd h)) /\ etag (snd h) = false.
Proof.
  intros s h B Hin. destruct (wf_handles s (zo_wf s B) h Hin) as [A T].
  split; [exact A|]. apply T. rewrite (zo_kind s B). discriminate.
Qed.

Lemma zbddok_put : forall s d r, ZbddOK s -> ref_ok s r -> ZbddOK (put s d r).
Proof.
  intros s d r B Hr. apply zbddok_set_handles; [exact B|].
  intros h [<-|Hin]; [simpl; auto|]. apply (z_handle_ok s h B). eapply hdel_In_x; eauto.
Qed.

Lemma zbddok_drop : forall s d, ZbddOK s -> ZbddOK (set_handles s (hdel (s_handles s) d)).
Proof.
  intros s d B. apply zbddok_set_handles; [exact B|].
  intros h Hin. apply (z_handle_ok s h B). eapply hdel_In_x; eauto.
Qed.

(** ** The simulation relation *)

Definition zhrel (s1 s2 : snap) (h1 h2 : N * edge) : Prop :=
  fst h1 = fst h2 /\ etag (snd h1) = false /\ etag (snd h2) = false /\
  exists P, ZDen s1 (eref (snd h1)) P /\ ZDen s2 (eref (snd h2)) P.

Record zsim (s1 s2 : snap) : Prop := mkZSim {
  zsim_b1 : ZbddOK s1;
  zsim_b2 : ZbddOK s2;
  zsim_c1 : ZChainOK s1;
  zsim_c2 : ZChainOK s2;
  zsim_v2l : s_v2l s1 = s_v2l s2;
  zsim_l2v : s_l2v s1 = s_l2v s2;
  zsim_h : Forall2 (zhrel s1 s2) (s_handles s1) (s_handles s2)
}.

Lemma zsim_nlevels : forall s1 s2, zsim s1 s2 -> nlevels s1 = nlevels s2.
Proof. intros s1 s2 S. unfold nlevels. rewrite (zsim_l2v _ _ S). reflexivity. Qed.

Definition zden_mono (s s' : snap) : Prop := forall r P, ZDen s r P -> ZDen s' r P.

Lemma zden_mono_put : forall s s' d r, ZbddOK s -> extends s s' -> zden_mono s (put s' d r).
Proof. intros s s' d r B X q P D. apply zden_set_handles. apply (zden_extends s s' _ _ B X D). Qed.

Lemma zhget_rel : forall s1 s2 hs1 hs2 k, Forall2 (zhrel s1 s2) hs1 hs2 ->
  match hget hs1 k, hget hs2 k with
  | Some e1, Some e2 => exists P, ZDen s1 (eref e1) P /\ ZDen s2 (eref e2) P
  | None, None => True
  | _, _ => False
  end.
Proof.
  intros s1 s2 hs1 hs2 k HF. induction HF as [|[a x] [b y] r1 r2 Hh Hr IH]; simpl; [exact I|].
  destruct Hh as [A [_ [_ Hd]]]. simpl in A. subst b.
  destruct (N.eqb a k); [exact Hd | exact IH].
Qed.

Lemma zhdel_rel : forall s1 s2 hs1 hs2 k, Forall2 (zhrel s1 s2) hs1 hs2 ->
  Forall2 (zhrel s1 s2) (hdel hs1 k) (hdel hs2 k).
Proof.
  intros s1 s2 hs1 hs2 k HF. induction HF as [|x y r1 r2 Hh Hr IH]; simpl; [constructor|].
  pose proof Hh as [A _]. rewrite <- A.
  destruct (negb (N.eqb (fst x) k)); [constructor; assumption | exact IH].
Qed.

Lemma forall2_zhrel_mono : forall s1 s2 s1' s2' hs1 hs2, zden_mono s1 s1' -> zden_mono s2 s2' ->
  Forall2 (zhrel s1 s2) hs1 hs2 -> Forall2 (zhrel s1' s2') hs1 hs2.
Proof.
  intros s1 s2 s1' s2' hs1 hs2 M1 M2 HF.
  induction HF as [|x y r1 r2 [A [T1 [T2 [P [D1 D2]]]]] Hr IH]; constructor; [|exact IH].
  split; [exact A|]. split; [exact T1|]. split; [exact T2|]. exists P. auto.
Qed.

Lemma zput_sim : forall s1 s2 s1' s2' d r1 r2 P,
  zsim s1 s2 -> ZbddOK s1' -> ZbddOK s2' -> extends s1 s1' -> extends s2 s2' ->
  ZDen s1' r1 P -> ZDen s2' r2 P ->
  zsim (put s1' d r1) (put s2' d r2).
Proof.
  intros s1 s2 s1' s2' d r1 r2 P S B1' B2' X1 X2 D1 D2.
  pose proof (zden_mono_put s1 s1' d r1 (zsim_b1 _ _ S) X1) as M1.
  pose proof (zden_mono_put s2 s2' d r2 (zsim_b2 _ _ S) X2) as M2.
  constructor.
  - apply zbddok_put; [exact B1' | apply (zden_ok _ _ _ D1)].
  - apply zbddok_put; [exact B2' | apply (zden_ok _ _ _ D2)].
  - apply zchain_set_handles. apply (zchain_extends s1 s1' (zsim_b1 _ _ S) B1' X1 (zsim_c1 _ _ S)).
  - apply zchain_set_handles. apply (zchain_extends s2 s2' (zsim_b2 _ _ S) B2' X2 (zsim_c2 _ _ S)).
  - simpl. rewrite (ext_v2l _ _ X1), (ext_v2l _ _ X2). apply (zsim_v2l _ _ S).
  - simpl. rewrite (ext_l2v _ _ X1), (ext_l2v _ _ X2). apply (zsim_l2v _ _ S).
  - simpl. unfold hset. constructor.
    + split; [reflexivity|]. split; [reflexivity|]. split; [reflexivity|]. exists P. simpl.
      split; apply zden_set_handles; assumption.
    + rewrite (ext_handles _ _ X1), (ext_handles _ _ X2).
      apply zhdel_rel. apply (forall2_zhrel_mono s1 s2 _ _ _ _ M1 M2). apply (zsim_h _ _ S).
Qed.

Lemma zdrop_sim : forall s1 s2 d, zsim s1 s2 ->
  zsim (set_handles s1 (hdel (s_handles s1) d)) (set_handles s2 (hdel (s_handles s2) d)).
Proof.
  intros s1 s2 d S. constructor.
  - apply zbddok_drop. apply (zsim_b1 _ _ S).
  - apply zbddok_drop. apply (zsim_b2 _ _ S).
  - apply zchain_set_handles. apply (zsim_c1 _ _ S).
  - apply zchain_set_handles. apply (zsim_c2 _ _ S).
  - apply (zsim_v2l _ _ S).
  - apply (zsim_l2v _ _ S).
  - simpl. apply zhdel_rel.
    apply (forall2_zhrel_mono s1 s2 _ _ _ _
             (fun r P D => proj1 (zden_set_handles s1 _ r P) D) (fun r P D => proj1 (zden_set_handles s2 _ r P) D)).
    apply (zsim_h _ _ S).
Qed.

(** ** Observables *)

Theorem zsim_observe : forall s1 s2, zsim s1 s2 ->
  forall c, choice_ok s1 c -> observe s1 c = observe s2 c.
Proof.
  intros s1 s2 S c Hc. unfold observe. f_equal; [|apply (zsim_v2l _ _ S)].
  pose proof (zsim_b1 _ _ S) as B1. pose proof (zsim_b2 _ _ S) as B2.
  assert (Hc2 : choice_ok s2 c) by (unfold choice_ok in *; rewrite (zo_kind s2 B2); rewrite (zo_kind s1 B1) in Hc; exact Hc).
  pose proof (zsim_h _ _ S) as HF.
  induction HF as [|h1 h2 r1 r2 Hh Hr IH]; [reflexivity|]. simpl. f_equal; [|exact IH].
  destruct Hh as [A [T1 [T2 [P [D1 D2]]]]]. unfold obs_handle.
  rewrite A. f_equal; [f_equal|].
  - unfold sem_edge. rewrite (zo_kind s1 B1), (zo_kind s2 B2).
    destruct (zden_view s1 _ P c B1 D1 Hc) as [b1 [V1 H1]]. destruct (zden_view s2 _ P c B2 D2 Hc2) as [b2 [V2 H2]].
    unfold zview_of in V1, V2. rewrite V1, V2. simpl. rewrite (zsim_nlevels _ _ S) in H1.
    rewrite (bool_iff_eq b1 b2 _ H1 H2). reflexivity.
  - assert (E1 : snd h1 = E (eref (snd h1))) by (apply edge_ext; [reflexivity | exact T1]).
    assert (E2 : snd h2 = E (eref (snd h2))) by (apply edge_ext; [reflexivity | exact T2]).
    rewrite E1, E2.
    apply (count_reach_zden s1 s2 B1 B2 (zsim_nlevels _ _ S) _ _ P D1 D2).
Qed.

Theorem zsim_wf_b : forall s1 s2, zsim s1 s2 -> wf_b s1 = true /\ wf_b s2 = true.
Proof.
  intros s1 s2 S. split; apply wf_b_spec; [apply (zo_wf _ (zsim_b1 _ _ S)) | apply (zo_wf _ (zsim_b2 _ _ S))].
Qed.

(** ** Two configurations *)

Section TwoConfigs.
Variable alloc1 : snap -> positive.
Hypothesis Halloc1 : alloc_ok alloc1.
Variable gt1 : ref -> ref -> bool.
Variable C1 : Type.
Variable cget1 : C1 -> N -> list ref -> list nat -> option ref.
Variable cadd1 : C1 -> N -> list ref -> list nat -> ref -> C1.
Hypothesis L1 : zlossy C1 cget1 cadd1.
Variable sch1 : nat -> sched.
Variable alloc2 : snap -> positive.
Hypothesis Halloc2 : alloc_ok alloc2.
Variable gt2 : ref -> ref -> bool.
Variable C2 : Type.
Variable cget2 : C2 -> N -> list ref -> list nat -> option ref.
Variable cadd2 : C2 -> N -> list ref -> list nat -> ref -> C2.
Hypothesis L2 : zlossy C2 cget2 cadd2.
Variable sch2 : nat -> sched.

Notation step1 := (zmstep alloc1 gt1 C1 cget1 cadd1 sch1).
Notation step2 := (zmstep alloc2 gt2 C2 cget2 cadd2 sch2).

Definition zmsim (st1 : zmstate C1) (st2 : zmstate C2) : Prop :=
  zsim (zm_snap C1 st1) (zm_snap C2 st2) /\
  ZCacheOKB C1 cget1 (zm_snap C1 st1) (zm_cache C1 st1) /\
  ZCacheOKB C2 cget2 (zm_snap C2 st2) (zm_cache C2 st2).

Definition ozmsim (o1 : option (zmstate C1)) (o2 : option (zmstate C2)) : Prop :=
  match o1, o2 with
  | Some a, Some b => zmsim a b
  | None, None => True
  | _, _ => False
  end.

Lemma zresult_sim : forall s1 s2 res1 res2 R d k1 k2,
  zsim s1 s2 ->
  zresult_okB C1 cget1 s1 res1 R -> zresult_okB C2 cget2 s2 res2 R ->
  ozmsim (match res1 with Some (s', c', r) => Some (mkZM C1 (put s' d r) c' k1) | None => None end)
         (match res2 with Some (s', c', r) => Some (mkZM C2 (put s' d r) c' k2) | None => None end).
Proof.
  intros s1 s2 res1 res2 R d k1 k2 S
         (sa & ca & ra & Ea & Ba & Xa & Oa & Da) (sb & cb & rb & Eb & Bb & Xb & Ob & Db).
  subst res1 res2. simpl. split; [|split].
  - apply (zput_sim s1 s2 sa sb d ra rb R S Ba Bb Xa Xb Da Db).
  - apply zcacheokb_set_handles. exact Oa.
  - apply zcacheokb_set_handles. exact Ob.
Qed.

Theorem zmstep_sim : forall st1 st2 o, zmsim st1 st2 -> ozmsim (step1 st1 o) (step2 st2 o).
Proof.
  intros [s1 c1 k1] [s2 c2 k2] o [HS [O1 O2]]. simpl in HS, O1, O2.
  pose proof (zsim_b1 _ _ HS) as B1. pose proof (zsim_b2 _ _ HS) as B2.
  pose proof (zsim_c1 _ _ HS) as Hc1. pose proof (zsim_c2 _ _ HS) as Hc2.
  pose proof (zsim_nlevels _ _ HS) as Hn.
  destruct o as [d b|d v neg|d a|d op a b|d a b e|d a|d]; unfold zmstep; cbn [zm_snap zm_cache zm_step].
  - (* const *)
    destruct (zconst_ok s1 b B1 Hc1) as [r1 [E1 D1]]. destruct (zconst_ok s2 b B2 Hc2) as [r2 [E2 D2]].
    rewrite E1, E2. simpl. rewrite <- Hn in D2. split; [|split].
    + apply (zput_sim s1 s2 s1 s2 d _ _ _ HS B1 B2 (extends_refl _) (extends_refl _) D1 D2).
    + apply zcacheokb_set_handles. exact O1.
    + apply zcacheokb_set_handles. exact O2.
  - (* var / not_var *)
    destruct (nth_error (s_v2l s1) v) as [L|] eqn:Ev.
    + assert (Ev2 : nth_error (s_v2l s2) v = Some L) by (rewrite <- (zsim_v2l _ _ HS); exact Ev).
      destruct neg.
      * apply (zresult_sim s1 s2 _ _ (pbin ZDiff (pall (nlevels s1) 0) (pvar (nlevels s1) L)) d
                 (Datatypes.S k1) (Datatypes.S k2) HS).
        -- apply (znot_var_g_ok alloc1 Halloc1 gt1 C1 cget1 cadd1 L1); auto.
        -- rewrite Hn. apply (znot_var_g_ok alloc2 Halloc2 gt2 C2 cget2 cadd2 L2); auto.
      * destruct (zvar_a_ok alloc1 Halloc1 s1 v L B1 Hc1 Ev) as (sa & ra & Ea & Ba & Xa & Da).
        destruct (zvar_a_ok alloc2 Halloc2 s2 v L B2 Hc2 Ev2) as (sb & rb & Eb & Bb & Xb & Db).
        rewrite Ea, Eb. simpl. rewrite <- Hn in Db. split; [|split].
        -- apply (zput_sim s1 s2 sa sb d ra rb _ HS Ba Bb Xa Xb Da Db).
        -- apply zcacheokb_set_handles. apply (zcacheokb_extends C1 cget1 s1 sa c1 B1 Xa O1).
        -- apply zcacheokb_set_handles. apply (zcacheokb_extends C2 cget2 s2 sb c2 B2 Xb O2).
    + assert (Ev2 : nth_error (s_v2l s2) v = None) by (rewrite <- (zsim_v2l _ _ HS); exact Ev).
      destruct neg.
      * rewrite (znot_var_g_none alloc1 gt1 C1 cget1 cadd1 _ _ s1 c1 v Ev),
                (znot_var_g_none alloc2 gt2 C2 cget2 cadd2 _ _ s2 c2 v Ev2). exact I.
      * rewrite (zvar_a_none alloc1 s1 v Ev), (zvar_a_none alloc2 s2 v Ev2). exact I.
  - (* not *)
    pose proof (zhget_rel s1 s2 _ _ a (zsim_h _ _ HS)) as Ha.
    destruct (hget (s_handles s1) a) as [ea1|], (hget (s_handles s2) a) as [ea2|]; try contradiction; [|exact I].
    destruct Ha as [P [Da1 Da2]].
    apply (zresult_sim s1 s2 _ _ (pbin ZDiff (pall (nlevels s1) 0) P) d (Datatypes.S k1) (Datatypes.S k2) HS).
    + apply zres_st_weak. apply (zapply_not_g_ok alloc1 Halloc1 gt1 C1 cget1 cadd1 L1); auto.
    + rewrite Hn. apply zres_st_weak. apply (zapply_not_g_ok alloc2 Halloc2 gt2 C2 cget2 cadd2 L2); auto.
  - (* bin *)
    pose proof (zhget_rel s1 s2 _ _ a (zsim_h _ _ HS)) as Ha.
    pose proof (zhget_rel s1 s2 _ _ b (zsim_h _ _ HS)) as Hb.
    destruct (hget (s_handles s1) a) as [ea1|], (hget (s_handles s2) a) as [ea2|]; try contradiction; [|exact I].
    destruct (hget (s_handles s1) b) as [eb1|], (hget (s_handles s2) b) as [eb2|]; try contradiction; [|exact I].
    destruct Ha as [P [Da1 Da2]]. destruct Hb as [Q [Db1 Db2]].
    apply (zresult_sim s1 s2 _ _ (pop (nlevels s1) op P Q) d (Datatypes.S k1) (Datatypes.S k2) HS).
    + apply (zres_wk_weak C1 cget1). apply (zapply_op_g_ok alloc1 Halloc1 gt1 C1 cget1 cadd1 L1); auto.
    + rewrite Hn. apply (zres_wk_weak C2 cget2). apply (zapply_op_g_ok alloc2 Halloc2 gt2 C2 cget2 cadd2 L2); auto.
  - (* ite *)
    pose proof (zhget_rel s1 s2 _ _ a (zsim_h _ _ HS)) as Ha.
    pose proof (zhget_rel s1 s2 _ _ b (zsim_h _ _ HS)) as Hb.
    pose proof (zhget_rel s1 s2 _ _ e (zsim_h _ _ HS)) as He.
    destruct (hget (s_handles s1) a) as [ea1|], (hget (s_handles s2) a) as [ea2|]; try contradiction; [|exact I].
    destruct (hget (s_handles s1) b) as [eb1|], (hget (s_handles s2) b) as [eb2|]; try contradiction; [|exact I].
    destruct (hget (s_handles s1) e) as [ee1|], (hget (s_handles s2) e) as [ee2|]; try contradiction; [|exact I].
    destruct Ha as [P [Da1 Da2]]. destruct Hb as [Q [Db1 Db2]]. destruct He as [R [De1 De2]].
    apply (zresult_sim s1 s2 _ _ (pite P Q R) d (Datatypes.S k1) (Datatypes.S k2) HS).
    + apply zres_st_weak. apply (zapply_ite_g_ok alloc1 Halloc1 gt1 C1 cget1 cadd1 L1); auto. lia.
    + apply zres_st_weak. apply (zapply_ite_g_ok alloc2 Halloc2 gt2 C2 cget2 cadd2 L2); auto. lia.
  - (* clone *)
    pose proof (zhget_rel s1 s2 _ _ a (zsim_h _ _ HS)) as Ha.
    destruct (hget (s_handles s1) a) as [ea1|], (hget (s_handles s2) a) as [ea2|]; try contradiction; [|exact I].
    destruct Ha as [P [Da1 Da2]]. simpl. split; [|split].
    + apply (zput_sim s1 s2 s1 s2 d _ _ P HS B1 B2 (extends_refl _) (extends_refl _) Da1 Da2).
    + apply zcacheokb_set_handles. exact O1.
    + apply zcacheokb_set_handles. exact O2.
  - (* drop *)
    simpl. split; [|split].
    + apply zdrop_sim. exact HS.
    + apply zcacheokb_set_handles. exact O1.
    + apply zcacheokb_set_handles. exact O2.
Qed.

Theorem zrun_ops_sim : forall ops st1 st2, zmsim st1 st2 ->
  ozmsim (zrun_ops alloc1 gt1 C1 cget1 cadd1 sch1 st1 ops) (zrun_ops alloc2 gt2 C2 cget2 cadd2 sch2 st2 ops).
Proof.
  unfold zrun_ops.
  assert (G : forall ops o1 o2, ozmsim o1 o2 ->
            ozmsim (fold_left (zostep alloc1 gt1 C1 cget1 cadd1 sch1) ops o1)
                   (fold_left (zostep alloc2 gt2 C2 cget2 cadd2 sch2) ops o2)).
  { induction ops as [|o ops IH]; intros o1 o2 Hs; [exact Hs|]. simpl. apply IH.
    destruct o1 as [a|], o2 as [b|]; simpl in *; try contradiction; [apply zmstep_sim; exact Hs | exact I]. }
  intros ops st1 st2 Hs. apply G. exact Hs.
Qed.

(** the client-visible content: the two runs fail together, and if they succeed
    the final tables are well-formed and every observable agrees *)
Theorem zrun_ops_observe : forall ops st1 st2, zmsim st1 st2 ->
  match zrun_ops alloc1 gt1 C1 cget1 cadd1 sch1 st1 ops, zrun_ops alloc2 gt2 C2 cget2 cadd2 sch2 st2 ops with
  | Some a, Some b =>
    wf_b (zm_snap C1 a) = true /\ wf_b (zm_snap C2 b) = true /\
    forall c, bchoice c -> observe (zm_snap C1 a) c = observe (zm_snap C2 b) c
  | None, None => True
  | _, _ => False
  end.
Proof.
  intros ops st1 st2 Hs. pose proof (zrun_ops_sim ops st1 st2 Hs) as R.
  destruct (zrun_ops alloc1 gt1 C1 cget1 cadd1 sch1 st1 ops) as [a|],
           (zrun_ops alloc2 gt2 C2 cget2 cadd2 sch2 st2 ops) as [b|]; simpl in R; try contradiction; [|exact I].
  destruct R as [S _]. destruct (zsim_wf_b _ _ S) as [W1 W2].
  split; [exact W1|]. split; [exact W2|]. intros c Hc. apply zsim_observe; [exact S|].
  intros l. rewrite (zo_kind _ (zsim_b1 _ _ S)). apply Hc.
Qed.

End TwoConfigs.

Lemma zsim_refl : forall s, ZbddOK s -> ZChainOK s -> zsim s s.
Proof.
  intros s B Hc. constructor; auto.
  assert (G : forall hs, (forall h, In h hs -> In h (s_handles s)) -> Forall2 (zhrel s s) hs hs).
  { induction hs as [|h r IH]; intros Hin; constructor.
    - destruct (z_handle_ok s h B (Hin h (or_introl eq_refl))) as [A T].
      destruct (zden_exists s _ B A) as [P D].
      split; [reflexivity|]. split; [exact T|]. split; [exact T|]. exists P. auto.
    - apply IH. intros x Hx. apply Hin. right. exact Hx. }
  apply G. auto.
Qed.

(** ** Cache enabled / disabled / any other cache: identical tables for whole histories *)

Section CacheRun.
Variable alloc : snap -> positive.
Hypothesis Halloc : alloc_ok alloc.
Variable sch : nat -> sched.
Variables gt1 gt2 : ref -> ref -> bool.
Variables C1 C2 : Type.
Variable cget1 : C1 -> N -> list ref -> list nat -> option ref.
Variable cadd1 : C1 -> N -> list ref -> list nat -> ref -> C1.
Variable cget2 : C2 -> N -> list ref -> list nat -> option ref.
Variable cadd2 : C2 -> N -> list ref -> list nat -> ref -> C2.
Hypothesis L1 : zlossy C1 cget1 cadd1.
Hypothesis L2 : zlossy C2 cget2 cadd2.

Notation cstep1 := (zmstep alloc gt1 C1 cget1 cadd1 sch).
Notation cstep2 := (zmstep alloc gt2 C2 cget2 cadd2 sch).

Definition zexact (st1 : zmstate C1) (st2 : zmstate C2) : Prop :=
  zm_snap C1 st1 = zm_snap C2 st2 /\ zm_step C1 st1 = zm_step C2 st2 /\
  ZbddOK (zm_snap C1 st1) /\ ZChainOK (zm_snap C1 st1) /\
  ZCacheOKB C1 cget1 (zm_snap C1 st1) (zm_cache C1 st1) /\
  ZCacheOKB C2 cget2 (zm_snap C2 st2) (zm_cache C2 st2).

Definition ozexact (o1 : option (zmstate C1)) (o2 : option (zmstate C2)) : Prop :=
  match o1, o2 with
  | Some a, Some b => zexact a b
  | None, None => True
  | _, _ => False
  end.

Lemma zagree_exact : forall s res1 res2 R d k, ZbddOK s -> ZChainOK s ->
  zresult_okB C1 cget1 s res1 R -> zresult_okB C2 cget2 s res2 R ->
  zsame_out C1 C2 res1 res2 ->
  ozexact (match res1 with Some (s', c', r) => Some (mkZM C1 (put s' d r) c' k) | None => None end)
          (match res2 with Some (s', c', r) => Some (mkZM C2 (put s' d r) c' k) | None => None end).
Proof.
  intros s res1 res2 R d k B Hc
         (sa & ca & ra & Ea & Ba & Xa & Oa & Da) (sb & cb & rb & Eb & Bb & Xb & Ob & Db) A.
  subst res1 res2. simpl in A. destruct A as [<- <-]. simpl.
  split; [reflexivity|]. split; [reflexivity|].
  split; [apply zbddok_put; [exact Ba | apply (zden_ok _ _ _ Da)]|].
  split; [apply zchain_set_handles; apply (zchain_extends s sa B Ba Xa Hc)|].
  split; apply zcacheokb_set_handles; assumption.
Qed.

Lemma zhandle_den : forall s k e, ZbddOK s -> hget (s_handles s) k = Some e -> exists P, ZDen s (eref e) P.
Proof.
  intros s k e B E. apply hget_In_x in E. destruct (z_handle_ok s _ B E) as [A _]. simpl in A.
  apply (zden_exists s _ B A).
Qed.

Theorem zmstep_cache_exact : forall st1 st2 o, zexact st1 st2 -> ozexact (cstep1 st1 o) (cstep2 st2 o).
Proof.
  intros [s c1 k] [s2 c2 k2] o [Es [Ek [B [Hc [O1 O2]]]]]. simpl in Es, Ek, B, Hc, O1, O2. subst s2 k2.
  destruct o as [d b|d v neg|d a|d op a b|d a b e|d a|d]; unfold zmstep; cbn [zm_snap zm_cache zm_step].
  - destruct (zconst_ok s b B Hc) as [r [E D]]. rewrite E. simpl.
    split; [reflexivity|]. split; [reflexivity|].
    split; [apply zbddok_put; [exact B | apply (zden_ok _ _ _ D)]|].
    split; [apply zchain_set_handles; exact Hc|]. split; apply zcacheokb_set_handles; assumption.
  - destruct (nth_error (s_v2l s) v) as [L|] eqn:Ev.
    + destruct neg.
      * (* var, then not: the two runs build the variable identically, then agree on [not] *)
        destruct (zvar_a_ok alloc Halloc s v L B Hc Ev) as (sa & ra & Ea & Ba & Xa & Da).
        pose proof (zchain_extends s sa B Ba Xa Hc) as Hca.
        pose proof (zcacheokb_extends C1 cget1 s sa c1 B Xa O1) as Oa1.
        pose proof (zcacheokb_extends C2 cget2 s sa c2 B Xa O2) as Oa2.
        assert (Hf : nlevels sa < Datatypes.S (nlevels s)) by (rewrite (ext_nlevels _ _ Xa); lia).
        pose proof (zapply_not_g_ok alloc Halloc gt1 C1 cget1 cadd1 L1 _ (sch k) sa c1 ra _ Ba Hca Oa1 Da Hf) as R1.
        pose proof (zapply_not_g_ok alloc Halloc gt2 C2 cget2 cadd2 L2 _ (sch k) sa c2 ra _ Ba Hca Oa2 Da Hf) as R2.
        pose proof (zapply_not_g_agree alloc Halloc gt1 gt2 C1 C2 cget1 cadd1 cget2 cadd2 L1 L2 _ (sch k) sa c1 c2 ra _
                      Ba Hca Oa1 Oa2 Da Hf) as A.
        unfold znot_var_g. rewrite Ea.
        destruct R1 as (s1' & c1' & r1 & E1 & B1' & X1' & O1' & D1' & _).
        destruct R2 as (s2' & c2' & r2 & E2 & B2' & X2' & O2' & D2' & _).
        rewrite E1, E2 in *. simpl in A. destruct A as [<- <-]. simpl.
        split; [reflexivity|]. split; [reflexivity|].
        split; [apply zbddok_put; [exact B1' | apply (zden_ok _ _ _ D1')]|].
        split; [apply zchain_set_handles; apply (zchain_extends sa s1' Ba B1' X1' Hca)|].
        split; apply zcacheokb_set_handles; assumption.
      * destruct (zvar_a_ok alloc Halloc s v L B Hc Ev) as (sa & ra & Ea & Ba & Xa & Da).
        rewrite Ea. simpl. split; [reflexivity|]. split; [reflexivity|].
        split; [apply zbddok_put; [exact Ba | apply (zden_ok _ _ _ Da)]|].
        split; [apply zchain_set_handles; apply (zchain_extends s sa B Ba Xa Hc)|].
        split; apply zcacheokb_set_handles.
        -- apply (zcacheokb_extends C1 cget1 s sa c1 B Xa O1).
        -- apply (zcacheokb_extends C2 cget2 s sa c2 B Xa O2).
    + destruct neg.
      * rewrite (znot_var_g_none alloc gt1 C1 cget1 cadd1 _ _ s c1 v Ev),
                (znot_var_g_none alloc gt2 C2 cget2 cadd2 _ _ s c2 v Ev). exact I.
      * rewrite (zvar_a_none alloc s v Ev). exact I.
  - destruct (hget (s_handles s) a) as [ea|] eqn:Ha; [|exact I].
    destruct (zhandle_den s a ea B Ha) as [P Da].
    apply (zagree_exact s _ _ (pbin ZDiff (pall (nlevels s) 0) P) d _ B Hc).
    + apply zres_st_weak. apply (zapply_not_g_ok alloc Halloc gt1 C1 cget1 cadd1 L1); auto.
    + apply zres_st_weak. apply (zapply_not_g_ok alloc Halloc gt2 C2 cget2 cadd2 L2); auto.
    + apply (zapply_not_g_agree alloc Halloc gt1 gt2 C1 C2 cget1 cadd1 cget2 cadd2 L1 L2 _ _ s c1 c2 _ P); auto.
  - destruct (hget (s_handles s) a) as [ea|] eqn:Ha; [|exact I].
    destruct (hget (s_handles s) b) as [eb|] eqn:Hb; [|exact I].
    destruct (zhandle_den s a ea B Ha) as [P Da]. destruct (zhandle_den s b eb B Hb) as [Q Db].
    apply (zagree_exact s _ _ (pop (nlevels s) op P Q) d _ B Hc).
    + apply (zres_wk_weak C1 cget1). apply (zapply_op_g_ok alloc Halloc gt1 C1 cget1 cadd1 L1); auto.
    + apply (zres_wk_weak C2 cget2). apply (zapply_op_g_ok alloc Halloc gt2 C2 cget2 cadd2 L2); auto.
    + apply (zapply_op_g_agree alloc Halloc gt1 gt2 C1 C2 cget1 cadd1 cget2 cadd2 L1 L2 op _ _ s c1 c2 _ _ P Q); auto.
  - destruct (hget (s_handles s) a) as [ea|] eqn:Ha; [|exact I].
    destruct (hget (s_handles s) b) as [eb|] eqn:Hb; [|exact I].
    destruct (hget (s_handles s) e) as [ee|] eqn:He; [|exact I].
    destruct (zhandle_den s a ea B Ha) as [P Da]. destruct (zhandle_den s b eb B Hb) as [Q Db].
    destruct (zhandle_den s e ee B He) as [R De].
    apply (zagree_exact s _ _ (pite P Q R) d _ B Hc).
    + apply zres_st_weak. apply (zapply_ite_g_ok alloc Halloc gt1 C1 cget1 cadd1 L1); auto. lia.
    + apply zres_st_weak. apply (zapply_ite_g_ok alloc Halloc gt2 C2 cget2 cadd2 L2); auto. lia.
    + apply (zapply_ite_g_agree alloc Halloc gt1 gt2 C1 C2 cget1 cadd1 cget2 cadd2 L1 L2 _ _ s c1 c2 _ _ _ P Q R); auto. lia.
  - destruct (hget (s_handles s) a) as [ea|] eqn:Ha; [|exact I].
    destruct (zhandle_den s a ea B Ha) as [P Da]. simpl.
    split; [reflexivity|]. split; [reflexivity|].
    split; [apply zbddok_put; [exact B | apply (zden_ok _ _ _ Da)]|].
    split; [apply zchain_set_handles; exact Hc|]. split; apply zcacheokb_set_handles; assumption.
  - simpl. split; [reflexivity|]. split; [reflexivity|].
    split; [apply zbddok_drop; exact B|].
    split; [apply zchain_set_handles; exact Hc|]. split; apply zcacheokb_set_handles; assumption.
Qed.

Theorem zrun_ops_cache_exact : forall ops st1 st2, zexact st1 st2 ->
  ozexact (zrun_ops alloc gt1 C1 cget1 cadd1 sch st1 ops) (zrun_ops alloc gt2 C2 cget2 cadd2 sch st2 ops).
Proof.
  unfold zrun_ops.
  assert (G : forall ops o1 o2, ozexact o1 o2 ->
            ozexact (fold_left (zostep alloc gt1 C1 cget1 cadd1 sch) ops o1)
                    (fold_left (zostep alloc gt2 C2 cget2 cadd2 sch) ops o2)).
  { induction ops as [|o ops IH]; intros o1 o2 Hs; [exact Hs|]. simpl. apply IH.
    destruct o1 as [a|], o2 as [b|]; simpl in *; try contradiction;
      [apply zmstep_cache_exact; exact Hs | exact I]. }
  intros ops st1 st2 Hs. apply G. exact Hs.
Qed.

End CacheRun.
