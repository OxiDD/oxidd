(** * Specification of the family layer (DD/FamSpec.v) and the two views of a ZBDD edge

    - membership characterisations of the set expressions of DD/FamSpec.v;
    - [famz] on well-formed ZBDD snapshots: fuel adequacy, totality, the shape
      of the members (strictly increasing lists of levels, at or below the
      root's level, below [nlevels]), no duplicates;
    - [bool_view]: the Boolean view [semz] is the characteristic function of
      the family view [famz]. *)

From Coq Require Import List NArith PArith Bool Arith Lia FMapPositive FinFun.
From OxiVerif Require Import Base.ListFacts DD.Table DD.TableExtra DD.TableProofs DD.CanonZbdd DD.FamSpec.
Import ListNotations.

(** ** Sets and families *)

Lemma nat_list_eqb_eq : forall a b, nat_list_eqb a b = true <-> a = b.
Proof.
  induction a as [|x a IH]; intros [|y b]; simpl; split; try congruence; auto.
  - rewrite andb_true_iff, Nat.eqb_eq, IH. intros [-> ->]. reflexivity.
  - intros E. inversion E; subst. rewrite Nat.eqb_refl. apply IH. reflexivity.
Qed.

Lemma smem_spec : forall v S, smem v S = true <-> In v S.
Proof.
  intros v S. unfold smem. rewrite existsb_exists. split.
  - intros [x [Hx E]]. apply Nat.eqb_eq in E. subst. exact Hx.
  - intros Hx. exists v. split; [exact Hx | apply Nat.eqb_refl].
Qed.

Lemma smem_false : forall v S, smem v S = false <-> ~ In v S.
Proof. intros v S. rewrite <- smem_spec. destruct (smem v S); split; congruence. Qed.

Lemma fmem_spec : forall S F, fmem S F = true <-> In S F.
Proof.
  intros S F. unfold fmem. rewrite existsb_exists. split.
  - intros [x [Hx E]]. apply nat_list_eqb_eq in E. subst. exact Hx.
  - intros Hx. exists S. split; [exact Hx | apply nat_list_eqb_eq; reflexivity].
Qed.

Lemma fmem_false : forall S F, fmem S F = false <-> ~ In S F.
Proof. intros S F. rewrite <- fmem_spec. destruct (fmem S F); split; congruence. Qed.

Lemma fmem_iff : forall S F S' F', (In S F <-> In S' F') -> fmem S F = fmem S' F'.
Proof.
  intros S F S' F' Hi. apply eq_true_iff_eq. rewrite !fmem_spec. exact Hi.
Qed.

(** [feq]: the two lists have the same members *)
Definition feq (F G : fam) : Prop := forall S, In S F <-> In S G.

Lemma feq_refl : forall F, feq F F.
Proof. intros F S. reflexivity. Qed.

Lemma feq_sym : forall F G, feq F G -> feq G F.
Proof. intros F G Hf S. symmetry. apply Hf. Qed.

Lemma feq_trans : forall F G K, feq F G -> feq G K -> feq F K.
Proof. intros F G K A B S. rewrite (A S). apply B. Qed.

Lemma fsub_b_spec : forall F G, fsub_b F G = true <-> (forall S, In S F -> In S G).
Proof.
  intros F G. unfold fsub_b. rewrite forallb_forall. split; intros Hx S Hs.
  - apply fmem_spec. apply Hx. exact Hs.
  - apply fmem_spec. apply Hx. exact Hs.
Qed.

Theorem feq_b_spec : forall F G, feq_b F G = true <-> feq F G.
Proof.
  intros F G. unfold feq_b. rewrite andb_true_iff, !fsub_b_spec. unfold feq. split.
  - intros [A B] S. split; auto.
  - intros Hx. split; intros S; apply Hx.
Qed.

(** membership in the set expressions *)
Lemma in_f_empty : forall S, In S f_empty <-> False.
Proof. intros S. simpl. reflexivity. Qed.

Lemma in_f_base : forall S, In S f_base <-> S = [].
Proof. intros S. simpl. split; [intros [E|[]]; auto | intros ->; auto]. Qed.

Lemma in_f_singleton : forall v S, In S (f_singleton v) <-> S = [v].
Proof. intros v S. simpl. split; [intros [E|[]]; auto | intros ->; auto]. Qed.

Lemma in_f_union : forall F G S, In S (f_union F G) <-> In S F \/ In S G.
Proof. intros F G S. unfold f_union. apply in_app_iff. Qed.

Lemma in_f_intsec : forall F G S, In S (f_intsec F G) <-> In S F /\ In S G.
Proof. intros F G S. unfold f_intsec. rewrite filter_In, fmem_spec. reflexivity. Qed.

Lemma in_f_diff : forall F G S, In S (f_diff F G) <-> In S F /\ ~ In S G.
Proof.
  intros F G S. unfold f_diff. rewrite filter_In, negb_true_iff, fmem_false. reflexivity.
Qed.

Lemma in_f_subset0 : forall v F S, In S (f_subset0 v F) <-> In S F /\ ~ In v S.
Proof.
  intros v F S. unfold f_subset0. rewrite filter_In, negb_true_iff, smem_false. reflexivity.
Qed.

Lemma in_f_subset1 : forall v F S,
  In S (f_subset1 v F) <-> exists S0, In S0 F /\ In v S0 /\ S = sremove v S0.
Proof.
  intros v F S. unfold f_subset1. rewrite in_map_iff. split.
  - intros [S0 [E Hs]]. apply filter_In in Hs. destruct Hs as [A B]. apply smem_spec in B.
    exists S0. auto.
  - intros [S0 [A [B E]]]. exists S0. split; [auto|]. apply filter_In. split; [exact A|].
    apply smem_spec. exact B.
Qed.

Lemma in_f_change : forall v F S,
  In S (f_change v F) <->
  (exists S0, In S0 F /\ ~ In v S0 /\ S = sinsert v S0) \/
  (exists S0, In S0 F /\ In v S0 /\ S = sremove v S0).
Proof.
  intros v F S. unfold f_change. rewrite in_app_iff, !in_map_iff. split.
  - intros [[S0 [E Hs]]|[S0 [E Hs]]]; apply filter_In in Hs; destruct Hs as [A B].
    + left. exists S0. apply negb_true_iff, smem_false in B. auto.
    + right. exists S0. apply smem_spec in B. auto.
  - intros [[S0 [A [B E]]]|[S0 [A [B E]]]].
    + left. exists S0. split; [auto|]. apply filter_In. split; [exact A|].
      apply negb_true_iff, smem_false. exact B.
    + right. exists S0. split; [auto|]. apply filter_In. split; [exact A|].
      apply smem_spec. exact B.
Qed.

Lemma in_f_make_node : forall v hi lo S,
  In S (f_make_node v hi lo) <-> In S lo \/ exists S0, In S0 hi /\ S = sinsert v S0.
Proof.
  intros v hi lo S. unfold f_make_node. rewrite in_app_iff, in_map_iff. split.
  - intros [A|[S0 [E A]]]; [left; exact A | right; exists S0; auto].
  - intros [A|[S0 [A E]]]; [left; exact A | right; exists S0; auto].
Qed.

(** ** Increasing lists *)

(** [S] is strictly increasing and all its members are at least [lo] *)
Fixpoint incr_from (lo : nat) (S : lset) : Prop :=
  match S with
  | [] => True
  | x :: r => lo <= x /\ incr_from (Datatypes.S x) r
  end.

Lemma incr_from_weaken : forall S lo lo', lo' <= lo -> incr_from lo S -> incr_from lo' S.
Proof. destruct S as [|x r]; simpl; intros lo lo' Hl; [auto | intros [A B]; split; [lia | exact B]]. Qed.

Lemma incr_from_ge : forall S lo x, incr_from lo S -> In x S -> lo <= x.
Proof.
  induction S as [|y r IH]; simpl; intros lo x Hi Hx; [destruct Hx|].
  destruct Hi as [A B]. destruct Hx as [->|Hx]; [exact A|].
  specialize (IH _ _ B Hx). lia.
Qed.

Lemma incr_from_notin : forall S lo v, incr_from lo S -> v < lo -> ~ In v S.
Proof. intros S lo v Hi Hv Hx. pose proof (incr_from_ge S lo v Hi Hx). lia. Qed.

Lemma incr_from_nodup : forall S lo, incr_from lo S -> NoDup S.
Proof.
  induction S as [|x r IH]; simpl; intros lo Hi; constructor.
  - destruct Hi as [_ B]. apply (incr_from_notin r (S x) x B). lia.
  - destruct Hi as [_ B]. apply (IH _ B).
Qed.

Lemma sremove_notin : forall v S, ~ In v S -> sremove v S = S.
Proof.
  induction S as [|x r IH]; simpl; intros Hn; [reflexivity|].
  destruct (Nat.eqb_spec x v) as [->|Hne]; simpl.
  - exfalso. apply Hn. left. reflexivity.
  - f_equal. apply IH. intros Hx. apply Hn. right. exact Hx.
Qed.

Lemma sremove_cons_eq : forall v S, sremove v (v :: S) = sremove v S.
Proof. intros v S. unfold sremove. simpl. rewrite Nat.eqb_refl. reflexivity. Qed.

Lemma sremove_cons_ne : forall v x S, x <> v -> sremove v (x :: S) = x :: sremove v S.
Proof.
  intros v x S Hne. unfold sremove. simpl.
  destruct (Nat.eqb_spec x v); [contradiction | reflexivity].
Qed.

Lemma in_sremove : forall v S x, In x (sremove v S) <-> In x S /\ x <> v.
Proof.
  intros v S x. unfold sremove. rewrite filter_In, negb_true_iff, Nat.eqb_neq. reflexivity.
Qed.

Lemma sinsert_head : forall v S, incr_from (Datatypes.S v) S -> sinsert v S = v :: S.
Proof.
  intros v [|x r]; simpl; [reflexivity|]. intros [A _].
  destruct (Nat.ltb_spec v x); [reflexivity | lia].
Qed.

Lemma sinsert_cons_lt : forall v x S, x < v -> sinsert v (x :: S) = x :: sinsert v S.
Proof.
  intros v x S Hl. simpl. destruct (Nat.ltb_spec v x); [lia|].
  destruct (Nat.eqb_spec v x); [lia | reflexivity].
Qed.

Lemma in_sinsert : forall v S x, In x (sinsert v S) <-> x = v \/ In x S.
Proof.
  induction S as [|y r IH]; intros x; simpl.
  - split; [intros [E|[]]; auto | intros [E|[]]; auto].
  - destruct (Nat.ltb_spec v y).
    + simpl. split; [intros [E|E]; auto | intros [E|E]; auto].
    + destruct (Nat.eqb_spec v y) as [->|Hne]; simpl.
      * split; [auto | intros [->|E]; auto].
      * rewrite IH. split; [intros [E|[E|E]]; auto | intros [E|[E|E]]; auto].
Qed.

Lemma incr_from_sinsert : forall S lo v, incr_from lo S -> lo <= v -> incr_from lo (sinsert v S).
Proof.
  induction S as [|y r IH]; simpl; intros lo v Hi Hv.
  - split; [exact Hv | exact I].
  - destruct Hi as [A B]. destruct (Nat.ltb_spec v y).
    + simpl. split; [exact Hv|]. split; [lia | exact B].
    + destruct (Nat.eqb_spec v y) as [->|Hne]; simpl; [auto|].
      split; [exact A|]. apply IH; [exact B | lia].
Qed.

Lemma incr_from_sremove : forall S lo v, incr_from lo S -> incr_from lo (sremove v S).
Proof.
  induction S as [|y r IH]; simpl; intros lo v Hi; [exact I|].
  destruct Hi as [A B]. destruct (Nat.eqb_spec y v); simpl.
  - apply (incr_from_weaken _ (S y)); [lia | apply IH; exact B].
  - split; [exact A | apply IH; exact B].
Qed.

(** ** [true_levels] *)

Lemma true_levels_range : forall c cnt from x,
  In x (true_levels c from cnt) -> from <= x < from + cnt /\ c x = 0.
Proof.
  induction cnt as [|k IH]; simpl; intros from x Hx; [destruct Hx|].
  destruct (Nat.eqb_spec (c from) 0) as [E|E].
  - destruct Hx as [<-|Hx]; [split; [lia | exact E]|].
    destruct (IH _ _ Hx). split; [lia | auto].
  - destruct (IH _ _ Hx). split; [lia | auto].
Qed.

Lemma true_levels_in : forall c cnt from x,
  from <= x < from + cnt -> c x = 0 -> In x (true_levels c from cnt).
Proof.
  induction cnt as [|k IH]; simpl; intros from x Hx Hc; [lia|].
  destruct (Nat.eq_dec x from) as [->|Hne].
  - rewrite Hc. simpl. left. reflexivity.
  - destruct (Nat.eqb (c from) 0); [right|]; apply IH; auto; lia.
Qed.

Lemma true_levels_incr : forall c cnt from, incr_from from (true_levels c from cnt).
Proof.
  induction cnt as [|k IH]; simpl; intros from; [exact I|].
  destruct (Nat.eqb (c from) 0).
  - simpl. split; [lia | apply IH].
  - apply (incr_from_weaken _ (S from)); [lia | apply IH].
Qed.

Lemma true_levels_app : forall c a b from,
  true_levels c from (a + b) = true_levels c from a ++ true_levels c (from + a) b.
Proof.
  induction a as [|a IH]; intros b from; simpl.
  - rewrite Nat.add_0_r. reflexivity.
  - rewrite IH. replace (S from + a) with (from + S a) by lia.
    destruct (Nat.eqb (c from) 0); reflexivity.
Qed.

Lemma true_levels_ext : forall c c' cnt from,
  (forall l, from <= l < from + cnt -> c l = c' l) ->
  true_levels c from cnt = true_levels c' from cnt.
Proof.
  induction cnt as [|k IH]; simpl; intros from Hc; [reflexivity|].
  rewrite (Hc from) by lia. rewrite (IH (S from)) by (intros l Hl; apply Hc; lia). reflexivity.
Qed.

(** all skipped levels lo = no true level among them (for Boolean choices) *)
Lemma all_lo_true_levels : forall c cnt from, (forall l, c l < 2) ->
  all_lo c from cnt = nat_list_eqb (true_levels c from cnt) [].
Proof.
  induction cnt as [|k IH]; simpl; intros from Hc; [reflexivity|].
  specialize (Hc from) as Hf.
  destruct (c from) as [|[|x]] eqn:E; simpl; [reflexivity | apply IH; exact Hc | lia].
Qed.

(** ** [famz] on well-formed ZBDD snapshots *)

Lemma famz_T : forall s f t,
  famz s f (RT t) =
  match term_val s t with
  | Some v => Some (if N.eqb v 1 then [[]] else [])
  | None => None
  end.
Proof. destruct f; reflexivity. Qed.

Lemma famz_S : forall s f id,
  famz s (S f) (RN id) =
  match find_node s id with
  | None => None
  | Some nd =>
    match nchildren nd with
    | hi :: lo :: nil =>
      match famz s f (eref hi), famz s f (eref lo) with
      | Some a, Some b => Some (map (cons (nlevel nd)) a ++ b)
      | _, _ => None
      end
    | _ => None
    end
  end.
Proof. reflexivity. Qed.

Arguments famz : simpl never.

(** [node_fam L A B] = the family of a node at level [L] with hi family [A], lo family [B] *)
Definition node_fam (L : nat) (A B : fam) : fam := map (cons L) A ++ B.

Lemma in_node_fam : forall L A B S,
  In S (node_fam L A B) <-> (exists T, S = L :: T /\ In T A) \/ In S B.
Proof.
  intros L A B S. unfold node_fam. rewrite in_app_iff, in_map_iff. split.
  - intros [[T [E HT]]|Hb]; [left; exists T; auto | right; exact Hb].
  - intros [[T [E HT]]|Hb]; [left; exists T; auto | right; exact Hb].
Qed.

Section Fam.
Variable s : snap.
Hypothesis H : WF s.
Hypothesis Hkind : s_kind s = KZbdd.

Lemma zchildren : forall id nd, find_node s id = Some nd ->
  exists hi lo, nchildren nd = [hi; lo].
Proof.
  intros id nd E. pose proof (wf_arity s H id nd E) as Ha. rewrite Hkind in Ha. simpl in Ha.
  destruct (nchildren nd) as [|hi [|lo [|x r]]]; simpl in Ha; try discriminate.
  exists hi, lo. reflexivity.
Qed.

Lemma zchild_ok : forall id nd hi lo, find_node s id = Some nd -> nchildren nd = [hi; lo] ->
  ref_ok s (eref hi) /\ nlevel nd < rlevel s (eref hi) /\
  ref_ok s (eref lo) /\ nlevel nd < rlevel s (eref lo).
Proof.
  intros id nd hi lo E Ec.
  destruct (wf_child s H id nd hi E) as [A B]; [rewrite Ec; left; reflexivity|].
  destruct (wf_child s H id nd lo E) as [A' B']; [rewrite Ec; right; left; reflexivity|].
  auto.
Qed.

Lemma famz_fuel : forall f1 f2 r, ref_ok s r ->
  nlevels s - rlevel s r < f1 -> nlevels s - rlevel s r < f2 ->
  famz s f1 r = famz s f2 r.
Proof.
  induction f1 as [|f1 IH]; intros f2 r Hok H1 H2; [lia|].
  destruct r as [t|id]; [rewrite !famz_T; reflexivity|].
  destruct f2 as [|f2]; [lia|]. rewrite !famz_S.
  destruct (find_node s id) as [nd|] eqn:E; [|reflexivity].
  rewrite (rlevel_node s id nd E) in H1, H2.
  destruct (zchildren id nd E) as [hi [lo Ec]]. rewrite Ec.
  destruct (zchild_ok id nd hi lo E Ec) as [Oh [Lh [Ol Ll]]].
  pose proof (rlevel_le s H (eref hi)). pose proof (rlevel_le s H (eref lo)).
  rewrite (IH f2 (eref hi)) by (auto; lia). rewrite (IH f2 (eref lo)) by (auto; lia).
  reflexivity.
Qed.

Lemma famz_total : forall f r, ref_ok s r -> nlevels s - rlevel s r < f ->
  exists F, famz s f r = Some F.
Proof.
  induction f as [|f IH]; intros r Hok Hf; [lia|].
  destruct r as [t|id].
  - rewrite famz_T. destruct Hok as [v E]. rewrite E. eauto.
  - destruct Hok as [nd E]. rewrite famz_S, E.
    rewrite (rlevel_node s id nd E) in Hf.
    destruct (zchildren id nd E) as [hi [lo Ec]]. rewrite Ec.
    destruct (zchild_ok id nd hi lo E Ec) as [Oh [Lh [Ol Ll]]].
    pose proof (rlevel_le s H (eref hi)). pose proof (rlevel_le s H (eref lo)).
    destruct (IH (eref hi) Oh ltac:(lia)) as [A EA]. destruct (IH (eref lo) Ol ltac:(lia)) as [B EB].
    rewrite EA, EB. eauto.
Qed.

Lemma fam_of_total : forall r, ref_ok s r -> exists F, fam_of s r = Some F.
Proof.
  intros r Hok. apply famz_total; [exact Hok|]. pose proof (rlevel_le s H r). lia.
Qed.

Lemma fam_of_term : forall t v, term_val s t = Some v ->
  fam_of s (RT t) = Some (if N.eqb v 1 then f_base else f_empty).
Proof. intros t v E. unfold fam_of. rewrite famz_T, E. reflexivity. Qed.

(** the family of a node in terms of the families of its children *)
Lemma fam_of_node : forall id nd hi lo, find_node s id = Some nd -> nchildren nd = [hi; lo] ->
  fam_of s (RN id) =
  match fam_of s (eref hi), fam_of s (eref lo) with
  | Some a, Some b => Some (node_fam (nlevel nd) a b)
  | _, _ => None
  end.
Proof.
  intros id nd hi lo E Ec. unfold fam_of. rewrite famz_S, E, Ec.
  destruct (zchild_ok id nd hi lo E Ec) as [Oh [Lh [Ol Ll]]].
  pose proof (rlevel_le s H (eref hi)). pose proof (rlevel_le s H (eref lo)).
  pose proof (wf_level s H id nd E).
  rewrite (famz_fuel (nlevels s) (S (nlevels s)) (eref hi)) by (auto; lia).
  rewrite (famz_fuel (nlevels s) (S (nlevels s)) (eref lo)) by (auto; lia).
  reflexivity.
Qed.

Lemma famz_term : forall f t F, famz s f (RT t) = Some F -> F = [[]] \/ F = [].
Proof.
  intros f t F E. rewrite famz_T in E. destruct (term_val s t) as [v|]; [|discriminate].
  inversion E. destruct (N.eqb v 1); auto.
Qed.

(** every member is a strictly increasing list of levels between the root's
    level and [nlevels] *)
Lemma famz_members : forall f r F S, famz s f r = Some F -> In S F ->
  incr_from (rlevel s r) S /\ Forall (fun x => x < nlevels s) S.
Proof.
  induction f as [|f IH]; intros r F S Ef Hs; destruct r as [t|id]; try discriminate.
  1, 2: destruct (famz_term _ _ _ Ef) as [-> | ->];
    [destruct Hs as [<-|[]]; split; [exact I | constructor] | destruct Hs].
  rewrite famz_S in Ef. destruct (find_node s id) as [nd|] eqn:E; [|discriminate].
  destruct (zchildren id nd E) as [hi [lo Ec]]. rewrite Ec in Ef.
  destruct (zchild_ok id nd hi lo E Ec) as [Oh [Lh [Ol Ll]]].
  destruct (famz s f (eref hi)) as [A|] eqn:EA; [|discriminate].
  destruct (famz s f (eref lo)) as [B|] eqn:EB; [|discriminate].
  inversion Ef; subst F. rewrite (rlevel_node s id nd E).
  apply (in_node_fam (nlevel nd) A B S) in Hs. destruct Hs as [[T [-> HT]]|Hb].
  - destruct (IH _ _ _ EA HT) as [I1 I2]. split.
    + simpl. split; [lia|]. apply (incr_from_weaken _ (rlevel s (eref hi))); [lia | exact I1].
    + constructor; [apply (wf_level s H id nd E) | exact I2].
  - destruct (IH _ _ _ EB Hb) as [I1 I2]. split; [|exact I2].
    apply (incr_from_weaken _ (rlevel s (eref lo))); [lia | exact I1].
Qed.

Lemma fam_of_members : forall r F S, fam_of s r = Some F -> In S F ->
  incr_from (rlevel s r) S /\ Forall (fun x => x < nlevels s) S.
Proof. intros r F S. apply famz_members. Qed.

(** no set is listed twice *)
Lemma famz_nodup : forall f r F, famz s f r = Some F -> NoDup F.
Proof.
  induction f as [|f IH]; intros r F Ef; destruct r as [t|id]; try discriminate.
  1, 2: destruct (famz_term _ _ _ Ef) as [-> | ->]; repeat constructor; intros [].
  rewrite famz_S in Ef. destruct (find_node s id) as [nd|] eqn:E; [|discriminate].
  destruct (zchildren id nd E) as [hi [lo Ec]]. rewrite Ec in Ef.
  destruct (zchild_ok id nd hi lo E Ec) as [Oh [Lh [Ol Ll]]].
  destruct (famz s f (eref hi)) as [A|] eqn:EA; [|discriminate].
  destruct (famz s f (eref lo)) as [B|] eqn:EB; [|discriminate].
  inversion Ef; subst F. apply NoDup_app_intro.
  - apply FinFun.Injective_map_NoDup; [|apply (IH _ _ EA)].
    intros x y Exy. inversion Exy. reflexivity.
  - apply (IH _ _ EB).
  - intros S Hs Hb. apply in_map_iff in Hs. destruct Hs as [T [<- _]].
    destruct (famz_members _ _ _ _ EB Hb) as [I1 _]. simpl in I1. lia.
Qed.

(** ** The Boolean view is the characteristic function of the family view *)

Lemma choice_lt2 : forall c, choice_ok s c -> forall l, c l < 2.
Proof. intros c Hc l. specialize (Hc l). rewrite Hkind in Hc. exact Hc. Qed.

(** seen from level [lvl] (at or above the root): [semz] answers whether the
    set of true levels among [lvl, nlevels) is a member of the family *)
Theorem bool_view_from : forall f lvl r c F, ref_ok s r -> choice_ok s c -> lvl <= rlevel s r ->
  nlevels s - rlevel s r < f -> famz s f r = Some F ->
  semz s f lvl r c = Some (fmem (true_levels c lvl (nlevels s - lvl)) F).
Proof.
  induction f as [|f IH]; intros lvl r c F Hok Hc Hl Hf Ef; [lia|].
  pose proof (choice_lt2 c Hc) as Hc2.
  destruct r as [t|id].
  - rewrite semz_T. rewrite famz_T in Ef. destruct (term_val s t) as [v|]; [|discriminate].
    inversion Ef; subst F. f_equal.
    destruct (N.eqb v 1); simpl.
    + rewrite orb_false_r. apply all_lo_true_levels. exact Hc2.
    + reflexivity.
  - destruct Hok as [nd E]. pose proof Ef as Ef0. rewrite semz_S, E. rewrite famz_S, E in Ef.
    rewrite (rlevel_node s id nd E) in Hl, Hf.
    destruct (zchildren id nd E) as [hi [lo Ec]]. rewrite Ec in *.
    destruct (zchild_ok id nd hi lo E Ec) as [Oh [Lh [Ol Ll]]].
    destruct (famz s f (eref hi)) as [A|] eqn:EA; [|discriminate].
    destruct (famz s f (eref lo)) as [B|] eqn:EB; [|discriminate].
    inversion Ef; subst F. clear Ef.
    destruct (Nat.ltb_spec (nlevel nd) lvl) as [Hlt|_]; [lia|].
    pose proof (wf_level s H id nd E) as HL.
    pose proof (rlevel_le s H (eref hi)). pose proof (rlevel_le s H (eref lo)).
    remember (nlevel nd) as L eqn:EL.
    replace (nlevels s - lvl) with ((L - lvl) + S (nlevels s - S L)) by lia.
    rewrite true_levels_app. replace (lvl + (L - lvl)) with L by lia.
    rewrite (all_lo_true_levels c (L - lvl) lvl Hc2).
    destruct (true_levels c lvl (L - lvl)) as [|x T1] eqn:ET1.
    + simpl nat_list_eqb. cbv iota. simpl app. simpl true_levels.
      specialize (Hc2 L). destruct (c L) as [|[|k]] eqn:EcL; [| |lia].
      * simpl Nat.eqb. cbv iota. simpl nth_error. cbv beta iota.
        rewrite (IH (S L) (eref hi) c A) by (auto; lia). f_equal.
        apply fmem_iff. fold (node_fam L A B). rewrite in_node_fam. split.
        -- intros HA. left. eexists. split; [reflexivity | exact HA].
        -- intros [[T [ET HT]]|HB]; [inversion ET; subst; exact HT|].
           destruct (famz_members _ _ _ _ EB HB) as [I1 _]. simpl in I1. lia.
      * simpl Nat.eqb. cbv iota. simpl nth_error. cbv beta iota.
        rewrite (IH (S L) (eref lo) c B) by (auto; lia). f_equal.
        apply fmem_iff. fold (node_fam L A B). rewrite in_node_fam. split.
        -- intros HB. right. exact HB.
        -- intros [[T [ET HT]]|HB]; [|exact HB].
           pose proof (true_levels_incr c (nlevels s - S L) (S L)) as Hi.
           rewrite ET in Hi. simpl in Hi. lia.
    + simpl nat_list_eqb. cbv iota. f_equal. symmetry. apply fmem_false. intros Hin.
      assert (Hx : In x (true_levels c lvl (L - lvl))) by (rewrite ET1; left; reflexivity).
      apply true_levels_range in Hx.
      destruct (famz_members _ _ _ _ Ef0 Hin) as [I1 _].
      rewrite (rlevel_node s id nd E), <- EL in I1. simpl in I1. lia.
Qed.

(** C09 "bool_view": over all levels of the manager *)
Theorem bool_view : forall r c F, ref_ok s r -> choice_ok s c -> fam_of s r = Some F ->
  semz s (S (nlevels s)) 0 r c = Some (fam_bool (nlevels s) F c).
Proof.
  intros r c F Hok Hc Ef. unfold fam_bool.
  pose proof (rlevel_le s H r).
  rewrite (bool_view_from (S (nlevels s)) 0 r c F Hok Hc) by (auto; lia).
  rewrite Nat.sub_0_r. reflexivity.
Qed.

(** the same through [sem_edge] (the interpretation used by C01/C02): value code 1 iff member *)
Corollary bool_view_sem_edge : forall e c F, ref_ok s (eref e) -> choice_ok s c ->
  fam_of s (eref e) = Some F ->
  sem_edge s e c = Some (if fam_bool (nlevels s) F c then 1%N else 0%N).
Proof.
  intros e c F Hok Hc Ef. unfold sem_edge. rewrite Hkind.
  rewrite (bool_view (eref e) c F Hok Hc Ef). reflexivity.
Qed.

End Fam.

(** ** The variable reading of a set of levels

    The API speaks about variable numbers, [famz] lists levels; the two are
    related by the bijection level_to_var / var_to_level of the snapshot. *)

Definition vars_of (s : snap) (S : lset) : list nat := map (fun l => nth l (s_l2v s) 0) S.

Theorem var_view_mem : forall s v vl S, WF s ->
  nth_error (s_v2l s) v = Some vl -> Forall (fun x => x < nlevels s) S ->
  (In v (vars_of s S) <-> In vl S).
Proof.
  intros s v vl S H Ev Hb. unfold vars_of. rewrite in_map_iff. split.
  - intros [l [El Hl]]. rewrite Forall_forall in Hb. specialize (Hb l Hl).
    destruct (wf_perm_l2v s H l Hb) as [j [E1 E2]].
    rewrite (nth_error_nth _ _ 0 E1) in El. subst j. rewrite Ev in E2. inversion E2; subst. exact Hl.
  - intros Hl. exists vl. split; [|exact Hl].
    assert (Hv : v < length (s_v2l s)) by (apply nth_error_Some; congruence).
    destruct (wf_perm_v2l s H v Hv) as [j [E1 E2]]. rewrite Ev in E1. inversion E1; subst j.
    apply (nth_error_nth _ _ 0 E2).
Qed.
