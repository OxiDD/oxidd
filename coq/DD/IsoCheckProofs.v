(** * The table-isomorphism checker of DD/IsoCheck.v is sound and complete (GLUE)

    Relational notion ([iso_rel]): a renaming [rho] of node ids, injective on
    the ids of the model's table [s_m], that fixes the [fixed] ids, under which
    every node of [s_m] is stored in [s_r] as its renamed copy
    ([rename_edge rho] on the children, DD/Rename.v; levels, stored levels, tags
    and - optionally - reference counts equal), that (onto) reaches every node
    of [s_r], and maps every root pair onto each other.

    - [iso_with_sound]: whatever index the caller passes, a result [Some r]
      yields a GLOBALLY injective [rho] (in the sense of DD/RenameProofs.v)
      that extends [r] and satisfies [iso_rel];
    - [iso_core_complete]: if any [rho] satisfies [iso_rel], the model's table
      is closed with children on deeper levels below [nlevels] (part of [WF])
      and the real table has no duplicate nodes (part of [WF]), the checker
      answers [Some r] and [r] is [rho] on the model's ids;
    - [iso_rel_rename]: with [onto], [iso_rel] says that [rename_snap rho s_m]
      and [s_r] store the same nodes ([find_node] agrees at every id, reference
      counts set aside unless [rc]);
    - [iso_sem_edge]: equal headers + [iso_rel] (embedding suffices) => mapped
      edges have the same value under every choice, for all five kinds;
      [iso_famz]: ... and denote the same ZBDD family. *)

From Coq Require Import List NArith PArith Bool Arith Lia FMapPositive.
From OxiVerif Require Import DD.Table DD.TableExtra DD.TableProofs DD.Rename DD.RenameProofs DD.FamSpecProofs DD.IsoCheck.
Import ListNotations.

(** ** The relation *)

Definition in_m (s : snap) (id : positive) : Prop := exists nd, find_node s id = Some nd.

Definition node_match (rc : bool) (rho : positive -> positive) (nd nd' : node) : Prop :=
  nlevel nd = nlevel nd' /\ nstored nd = nstored nd' /\ (rc = true -> nrc nd = nrc nd') /\
  map (rename_edge rho) (nchildren nd) = nchildren nd'.

Definition root_in (s : snap) (e : edge) : Prop :=
  match eref e with RN id => in_m s id | RT _ => True end.

Record iso_rel (rc onto : bool) (fixed : positive -> bool) (s_m s_r : snap)
    (roots : list (edge * edge)) (rho : positive -> positive) : Prop := mkIsoRel {
  ir_inj : forall a b, in_m s_m a -> in_m s_m b -> rho a = rho b -> a = b;
  ir_fixed : forall a, in_m s_m a -> fixed a = true -> rho a = a;
  ir_node : forall a nd, find_node s_m a = Some nd ->
    exists nd', find_node s_r (rho a) = Some nd' /\ node_match rc rho nd nd';
  ir_onto : onto = true -> forall j nd', find_node s_r j = Some nd' -> exists a, in_m s_m a /\ rho a = j;
  ir_roots : forall p, In p roots -> root_in s_m (fst p) /\ rename_edge rho (fst p) = snd p
}.

(** ** Renaming edges through a finite map *)

Definition agrees (r : rmap) (rho : positive -> positive) : Prop :=
  forall id b, PositiveMap.find id r = Some b -> rho id = b.

Definition bound_to (r : rmap) (rho : positive -> positive) (e : edge) : Prop :=
  forall id, eref e = RN id -> PositiveMap.find id r = Some (rho id).

Lemma ren_edge_sound : forall r rho e e', agrees r rho -> ren_edge r e = Some e' -> e' = rename_edge rho e.
Proof.
  intros r rho [x t] e' A. unfold ren_edge, rename_edge. simpl.
  destruct x as [n|id]; simpl.
  - intros E; inversion E; reflexivity.
  - destruct (PositiveMap.find id r) as [b|] eqn:F; [|discriminate].
    intros E; inversion E. rewrite (A _ _ F). reflexivity.
Qed.

Lemma ren_edges_sound : forall r rho l l', agrees r rho ->
  ren_edges r l = Some l' -> l' = map (rename_edge rho) l.
Proof.
  intros r rho. induction l as [|a l IH]; simpl; intros l' A E; [inversion E; reflexivity|].
  destruct (ren_edge r a) as [a'|] eqn:Ea; [|discriminate].
  destruct (ren_edges r l) as [t|] eqn:El; [|discriminate].
  inversion E. f_equal; [eapply ren_edge_sound; eauto | apply IH; auto].
Qed.

Lemma ren_edge_bound : forall r e e', ren_edge r e = Some e' ->
  forall id, eref e = RN id -> PositiveMap.find id r <> None.
Proof.
  intros r [x t] e' E id Hx. simpl in Hx. subst x. unfold ren_edge in E. simpl in E.
  destruct (PositiveMap.find id r); [discriminate | discriminate].
Qed.

Lemma ren_edge_complete : forall r rho e, bound_to r rho e -> ren_edge r e = Some (rename_edge rho e).
Proof.
  intros r rho [x t] B. unfold ren_edge, rename_edge. simpl.
  destruct x as [n|id]; simpl; [reflexivity|].
  rewrite (B id eq_refl). reflexivity.
Qed.

Lemma ren_edges_complete : forall r rho l, (forall e, In e l -> bound_to r rho e) ->
  ren_edges r l = Some (map (rename_edge rho) l).
Proof.
  intros r rho. induction l as [|a l IH]; simpl; intros B; [reflexivity|].
  rewrite (ren_edge_complete r rho a) by (apply B; left; reflexivity).
  rewrite IH by (intros e He; apply B; right; exact He). reflexivity.
Qed.

(** ** The index of the real table *)

Lemma idx_bucket_add : forall ix q ch p,
  In p (idx_bucket (idx_add ix q) ch) <->
  (p = q /\ key2 (nchildren (snd q)) = key2 ch) \/ In p (idx_bucket ix ch).
Proof.
  intros ix q ch p. unfold idx_bucket, idx_add. cbv zeta.
  destruct (key2 (nchildren (snd q))) as [a1 a2], (key2 ch) as [b1 b2]. simpl fst. simpl snd.
  destruct (Pos.eq_dec a1 b1) as [->|N1]; [|rewrite PositiveMap.gso by congruence; intuition congruence].
  rewrite PositiveMap.gss. destruct (Pos.eq_dec a2 b2) as [->|N2].
  - rewrite PositiveMap.gss.
    destruct (PositiveMap.find b1 ix) as [m|]; [destruct (PositiveMap.find b2 m) | rewrite PositiveMap.gempty];
      simpl; intuition congruence.
  - rewrite PositiveMap.gso by congruence.
    destruct (PositiveMap.find b1 ix) as [m|]; [|rewrite PositiveMap.gempty]; intuition congruence.
Qed.

Lemma idx_fold_sound : forall l ix ch p,
  In p (idx_bucket (fold_left idx_add l ix) ch) -> In p l \/ In p (idx_bucket ix ch).
Proof.
  induction l as [|q l IH]; simpl; intros ix ch p H; [auto|].
  destruct (IH _ _ _ H) as [H1|H1]; [auto|].
  apply idx_bucket_add in H1. destruct H1 as [[-> _]|H1]; auto.
Qed.

Lemma idx_fold_mono : forall l ix ch p,
  In p (idx_bucket ix ch) -> In p (idx_bucket (fold_left idx_add l ix) ch).
Proof.
  induction l as [|q l IH]; simpl; intros ix ch p H; [exact H|].
  apply IH. apply idx_bucket_add. right. exact H.
Qed.

Lemma idx_fold_complete : forall l ix p,
  In p l -> In p (idx_bucket (fold_left idx_add l ix) (nchildren (snd p))).
Proof.
  induction l as [|q l IH]; simpl; intros ix p H; [destruct H|].
  destruct H as [->|H]; [|apply IH; exact H].
  apply idx_fold_mono. apply idx_bucket_add. left. auto.
Qed.

Lemma bucket_find_sound : forall l ch b id, bucket_find l ch b = Some id ->
  exists nd, In (id, nd) b /\ nlevel nd = l /\ nchildren nd = ch.
Proof.
  intros l ch. induction b as [|[i nd] b IH]; simpl; intros id E; [discriminate|].
  destruct (Nat.eqb (nlevel nd) l && edges_eqb (nchildren nd) ch) eqn:T.
  - inversion E; subst. apply andb_true_iff in T. destruct T as [T1 T2].
    apply Nat.eqb_eq in T1. apply edges_eqb_eq in T2. exists nd. auto.
  - destruct (IH _ E) as [nd' [H1 H2]]. exists nd'. auto.
Qed.

Lemma bucket_find_complete : forall l ch b id nd, In (id, nd) b -> nlevel nd = l -> nchildren nd = ch ->
  exists id', bucket_find l ch b = Some id'.
Proof.
  intros l ch. induction b as [|[i n] b IH]; simpl; intros id nd H Hl Hc; [destruct H|].
  destruct (Nat.eqb (nlevel n) l && edges_eqb (nchildren n) ch) eqn:T; [eauto|].
  destruct H as [E|H]; [|eapply IH; eauto].
  inversion E; subst. rewrite Nat.eqb_refl in T. simpl in T.
  assert (edges_eqb (nchildren nd) (nchildren nd) = true) by (apply edges_eqb_eq; reflexivity). congruence.
Qed.

Lemma idx_lookup_sound : forall s l ch b, idx_lookup (build_idx s) l ch = Some b ->
  exists nd, find_node s b = Some nd /\ nlevel nd = l /\ nchildren nd = ch.
Proof.
  intros s l ch b E. unfold idx_lookup in E. apply bucket_find_sound in E.
  destruct E as [nd [H [Hl Hc]]]. exists nd. split; [|auto].
  unfold build_idx in H. apply idx_fold_sound in H. destruct H as [H|H].
  - apply find_node_elements. exact H.
  - unfold idx_bucket in H. rewrite PositiveMap.gempty in H. destruct H.
Qed.

Lemma idx_lookup_complete : forall s b nd, find_node s b = Some nd ->
  exists b', idx_lookup (build_idx s) (nlevel nd) (nchildren nd) = Some b'.
Proof.
  intros s b nd E. unfold idx_lookup. apply find_node_elements in E.
  apply (bucket_find_complete _ _ _ b nd); [|reflexivity|reflexivity].
  unfold build_idx. apply (idx_fold_complete _ _ (b, nd)). exact E.
Qed.

(** ** The level buckets of the model's table *)

Lemma lvl_get_add : forall lb q l p,
  In p (lvl_get (lvl_add lb q) l) <-> (p = q /\ nlevel (snd q) = l) \/ In p (lvl_get lb l).
Proof.
  intros lb q l p. unfold lvl_add. unfold lvl_get at 1.
  destruct (Nat.eq_dec (nlevel (snd q)) l) as [E|N].
  - rewrite E, PositiveMap.gss. simpl. intuition (subst; auto).
  - rewrite PositiveMap.gso by (intros E; apply N; apply SuccNat2Pos.inj; symmetry; exact E).
    fold (lvl_get lb l). intuition.
Qed.

Lemma lvl_fold : forall els lb l p,
  In p (lvl_get (fold_left lvl_add els lb) l) <-> (In p els /\ nlevel (snd p) = l) \/ In p (lvl_get lb l).
Proof.
  induction els as [|q els IH]; simpl; intros lb l p; [tauto|].
  rewrite IH, lvl_get_add. split.
  - intros [[H1 H2]|[[-> H2]|H]]; auto.
  - intros [[[<-|H1] H2]|H]; auto.
Qed.

Lemma build_lvl_spec : forall els l p,
  In p (lvl_get (build_lvl els) l) <-> In p els /\ nlevel (snd p) = l.
Proof.
  intros els l p. unfold build_lvl. rewrite lvl_fold. unfold lvl_get.
  rewrite PositiveMap.gempty. simpl. tauto.
Qed.

(** ** Soundness *)

(** what the construction (1), (2) guarantees by itself: only ids of the model's table are bound *)
Definition dom_sub (r : rmap) (P : positive -> Prop) : Prop :=
  forall a b, PositiveMap.find a r = Some b -> P a.

Lemma bind_fixed_find : forall fixed l a b,
  PositiveMap.find a (bind_fixed fixed l) = Some b <-> b = a /\ fixed a = true /\ In a (map fst l).
Proof.
  intros fixed l a b. unfold bind_fixed. induction l as [|p l IH] using rev_ind.
  - simpl. rewrite PositiveMap.gempty. split; [discriminate | intros [_ [_ []]]].
  - rewrite fold_left_app, map_app, in_app_iff. simpl. destruct (fixed (fst p)) eqn:Hf.
    + destruct (Pos.eq_dec a (fst p)) as [->|N].
      * rewrite PositiveMap.gss. split; [intros E; inversion E; auto | intros [-> _]; reflexivity].
      * rewrite PositiveMap.gso by exact N. rewrite IH. intuition congruence.
    + rewrite IH. intuition (subst; congruence).
Qed.

Lemma bind_node_dom : forall ix fixed (P : positive -> Prop) r p r', dom_sub r P -> P (fst p) ->
  bind_node ix fixed r p = Some r' -> dom_sub r' P.
Proof.
  intros ix fixed P r p r' D HP E. unfold bind_node in E.
  destruct (fixed (fst p)); [inversion E; subst; exact D|].
  destruct (ren_edges r (nchildren (snd p))) as [ch|]; [|discriminate].
  destruct (idx_lookup ix (nlevel (snd p)) ch) as [b|]; [|discriminate].
  inversion E; subst. intros a b' F. destruct (Pos.eq_dec a (fst p)) as [->|N]; [exact HP|].
  rewrite PositiveMap.gso in F by exact N. exact (D _ _ F).
Qed.

Lemma bind_list_dom : forall ix fixed (P : positive -> Prop) l r r', dom_sub r P -> (forall p, In p l -> P (fst p)) ->
  bind_list ix fixed r l = Some r' -> dom_sub r' P.
Proof.
  intros ix fixed P. induction l as [|p l IH]; simpl; intros r r' D HP E; [inversion E; subst; exact D|].
  destruct (bind_node ix fixed r p) as [r1|] eqn:E1; [|discriminate].
  apply (IH r1 r'); [|intros q Hq; apply HP; right; exact Hq|exact E].
  apply (bind_node_dom ix fixed P r p r1 D); [apply HP; left; reflexivity|exact E1].
Qed.

Lemma bind_levels_dom : forall ix fixed (P : positive -> Prop) lb n r r', dom_sub r P ->
  (forall k p, In p (lvl_get lb k) -> P (fst p)) ->
  bind_levels ix fixed lb n r = Some r' -> dom_sub r' P.
Proof.
  intros ix fixed P lb. induction n as [|k IH]; simpl; intros r r' D HP E; [inversion E; subst; exact D|].
  destruct (bind_list ix fixed r (lvl_get lb k)) as [r1|] eqn:E1; [|discriminate].
  apply (IH r1 r'); [|exact HP|exact E].
  apply (bind_list_dom ix fixed P (lvl_get lb k) r r1 D); [apply HP|exact E1].
Qed.

(** what the verification (3) establishes *)
Lemma check_all_spec : forall rc fixed r s_r l inv0 inv,
  check_all rc fixed r s_r l inv0 = Some inv ->
  (forall p, In p l -> exists b nd',
      PositiveMap.find (fst p) r = Some b /\ find_node s_r b = Some nd' /\
      node_match_b rc r (snd p) nd' = true /\ (fixed (fst p) = true -> b = fst p) /\
      PositiveMap.find b inv = Some (fst p)) /\
  (forall b a, PositiveMap.find b inv0 = Some a -> PositiveMap.find b inv = Some a) /\
  (forall b a, PositiveMap.find b inv = Some a ->
      PositiveMap.find b inv0 = Some a \/ exists nd, In (a, nd) l /\ PositiveMap.find a r = Some b).
Proof.
  intros rc fixed r s_r. induction l as [|p l IH]; simpl; intros inv0 inv E.
  - inversion E; subst. split; [intros p []|]. split; auto.
  - destruct (check_node rc fixed r s_r inv0 p) as [inv1|] eqn:E1; [|discriminate].
    destruct (IH _ _ E) as [H1 [H2 H3]].
    unfold check_node in E1.
    destruct (PositiveMap.find (fst p) r) as [b|] eqn:Fr; [|discriminate].
    destruct (find_node s_r b) as [nd'|] eqn:Fn; [|discriminate].
    destruct (node_match_b rc r (snd p) nd' && (if fixed (fst p) then Pos.eqb b (fst p) else true)) eqn:T; [|discriminate].
    destruct (PositiveMap.find b inv0) eqn:Fi; [discriminate|]. inversion E1; subst inv1. clear E1.
    apply andb_true_iff in T. destruct T as [T1 T2].
    split; [|split].
    + intros q [<-|Hq]; [|apply H1; exact Hq].
      exists b, nd'. repeat split; auto.
      * intros Hf. rewrite Hf in T2. apply Pos.eqb_eq in T2. exact T2.
      * apply H2. apply PositiveMap.gss.
    + intros b' a F. apply H2. destruct (Pos.eq_dec b' b) as [->|N]; [congruence|].
      rewrite PositiveMap.gso by exact N. exact F.
    + intros b' a F. destruct (H3 _ _ F) as [F'|[nd [Hin Hr]]].
      * destruct (Pos.eq_dec b' b) as [->|N].
        -- rewrite PositiveMap.gss in F'. inversion F'; subst a. right. exists (snd p). split; [left; destruct p; reflexivity|exact Fr].
        -- rewrite PositiveMap.gso in F' by exact N. left. exact F'.
      * right. exists nd. split; [right; exact Hin|exact Hr].
Qed.

Lemma node_match_b_sound : forall rc r rho nd nd', agrees r rho ->
  node_match_b rc r nd nd' = true -> node_match rc rho nd nd'.
Proof.
  intros rc r rho nd nd' A T. unfold node_match_b in T.
  apply andb_true_iff in T. destruct T as [T T4]. apply andb_true_iff in T. destruct T as [T T3].
  apply andb_true_iff in T. destruct T as [T1 T2].
  apply Nat.eqb_eq in T1. apply Nat.eqb_eq in T2.
  destruct (ren_edges r (nchildren nd)) as [ch|] eqn:Ec; [|discriminate].
  apply edges_eqb_eq in T4. apply (ren_edges_sound r rho) in Ec; [|exact A].
  repeat split; auto.
  - intros ->. apply N.eqb_eq in T3. exact T3.
  - congruence.
Qed.

(** the global renaming: the finite map, and a shift beyond every id of the real table elsewhere *)
Definition maxkey (m : PositiveMap.t node) : positive :=
  fold_left (fun acc (p : positive * node) => Pos.max acc (fst p)) (PositiveMap.elements m) 1%positive.

Lemma maxkey_fold : forall (l : list (positive * node)) acc,
  (acc <= fold_left (fun acc (p : positive * node) => Pos.max acc (fst p)) l acc)%positive /\
  forall p, In p l -> (fst p <= fold_left (fun acc (p : positive * node) => Pos.max acc (fst p)) l acc)%positive.
Proof.
  induction l as [|q l IH]; simpl; intros acc; [split; [lia|intros p []]|].
  destruct (IH (Pos.max acc (fst q))) as [H1 H2]. split; [lia|].
  intros p [<-|Hp]; [lia|apply H2; exact Hp].
Qed.

Lemma maxkey_le : forall s j nd, find_node s j = Some nd -> (j <= maxkey (s_nodes s))%positive.
Proof.
  intros s j nd E. apply find_node_elements in E. unfold maxkey.
  apply (proj2 (maxkey_fold _ 1%positive) (j, nd) E).
Qed.

Definition rho_of (r : rmap) (M : positive) : positive -> positive :=
  fun id => match PositiveMap.find id r with Some b => b | None => (id + M)%positive end.

Theorem iso_with_sound : forall ix rc onto fixed s_m s_r roots r,
  iso_with ix rc onto fixed s_m s_r roots = Some r ->
  exists rho, injective rho /\ agrees r rho /\
    (forall a, in_m s_m a -> PositiveMap.find a r = Some (rho a)) /\
    iso_rel rc onto fixed s_m s_r roots rho.
Proof.
  intros ix rc onto fixed s_m s_r roots r E. unfold iso_with in E.
  set (els := PositiveMap.elements (s_nodes s_m)) in *.
  destruct (bind_levels ix fixed (build_lvl els) (nlevels s_m) (bind_fixed fixed els)) as [r1|] eqn:EB; [|discriminate].
  destruct (check_all rc fixed r1 s_r els (PositiveMap.empty positive)) as [inv|] eqn:EC; [|discriminate].
  destruct ((if onto then onto_b s_r inv else true) && roots_b r1 roots) eqn:ET; [|discriminate].
  inversion E; subst r1. clear E. apply andb_true_iff in ET. destruct ET as [EO ER].
  set (P := fun a : positive => In a (map fst els)).
  assert (D : dom_sub r P).
  { apply (bind_levels_dom ix fixed P (build_lvl els) (nlevels s_m) (bind_fixed fixed els) r); [| |exact EB].
    - intros a b F. apply bind_fixed_find in F. apply F.
    - intros k p Hp. apply build_lvl_spec in Hp. apply in_map. apply Hp. }
  destruct (check_all_spec _ _ _ _ _ _ _ EC) as [C1 [_ C3]].
  assert (Pin : forall a, P a -> exists nd, In (a, nd) els).
  { intros a Ha. apply in_map_iff in Ha. destruct Ha as [[a' nd] [<- Hin]]. exists nd. exact Hin. }
  set (M := maxkey (s_nodes s_r)). set (rho := rho_of r M).
  assert (A : agrees r rho) by (intros id b F; unfold rho, rho_of; rewrite F; reflexivity).
  assert (B : forall a, in_m s_m a -> PositiveMap.find a r = Some (rho a)).
  { intros a [nd Ea]. apply find_node_elements in Ea. destruct (C1 _ Ea) as [b [nd' [F _]]]. simpl in F.
    rewrite F. f_equal. symmetry. apply A. exact F. }
  assert (Hinj : injective rho).
  { intros a b Eab. unfold rho, rho_of in Eab.
    destruct (PositiveMap.find a r) as [x|] eqn:Fa, (PositiveMap.find b r) as [y|] eqn:Fb.
    - subst y. destruct (Pin a (D _ _ Fa)) as [na Ha]. destruct (Pin b (D _ _ Fb)) as [nb Hb].
      destruct (C1 _ Ha) as [x1 [n1 [F1 [_ [_ [_ I1]]]]]]. destruct (C1 _ Hb) as [x2 [n2 [F2 [_ [_ [_ I2]]]]]].
      simpl in *. congruence.
    - exfalso. destruct (Pin a (D _ _ Fa)) as [na Ha]. destruct (C1 _ Ha) as [x1 [n1 [F1 [N1 _]]]]. simpl in F1.
      assert (x1 = x) by congruence. subst x1. pose proof (maxkey_le _ _ _ N1). fold M in H. lia.
    - exfalso. destruct (Pin b (D _ _ Fb)) as [nb Hb]. destruct (C1 _ Hb) as [x1 [n1 [F1 [N1 _]]]]. simpl in F1.
      assert (x1 = y) by congruence. subst x1. pose proof (maxkey_le _ _ _ N1). fold M in H. lia.
    - apply Pos.add_reg_r in Eab. exact Eab. }
  exists rho. split; [exact Hinj|]. split; [exact A|]. split; [exact B|]. constructor.
  - intros a b _ _. apply Hinj.
  - intros a [nd Ea] Hf. apply find_node_elements in Ea. destruct (C1 _ Ea) as [b [nd' [F [_ [_ [Hfx _]]]]]]. simpl in *.
    rewrite (A _ _ F). apply Hfx. exact Hf.
  - intros a nd Ea. apply find_node_elements in Ea. destruct (C1 _ Ea) as [b [nd' [F [Fn [Tm _]]]]]. simpl in *.
    exists nd'. rewrite (A _ _ F). split; [exact Fn|]. apply (node_match_b_sound rc r rho _ _ A Tm).
  - intros -> j nd' Ej. unfold onto_b in EO. rewrite forallb_forall in EO.
    apply find_node_elements in Ej. specialize (EO _ Ej). simpl in EO.
    destruct (PositiveMap.find j inv) as [a|] eqn:Fi; [|discriminate].
    destruct (C3 _ _ Fi) as [F0|[nd [Hin Hr]]]; [rewrite PositiveMap.gempty in F0; discriminate|].
    exists a. split; [exists nd; apply find_node_elements; exact Hin|]. apply A. exact Hr.
  - intros p Hp. unfold roots_b in ER. rewrite forallb_forall in ER. specialize (ER _ Hp).
    destruct (ren_edge r (fst p)) as [e'|] eqn:Ee; [|discriminate]. apply edge_eqb_eq in ER. subst e'.
    split.
    + unfold root_in. destruct (eref (fst p)) as [t|id] eqn:Er; [exact I|].
      pose proof (ren_edge_bound _ _ _ Ee id Er) as Hb.
      destruct (PositiveMap.find id r) as [b|] eqn:F; [|congruence].
      destruct (Pin id (D _ _ F)) as [nd Hin]. exists nd. apply find_node_elements. exact Hin.
    + symmetry. apply (ren_edge_sound r rho _ _ A Ee).
Qed.

(** ** Completeness *)

Lemma node_match_b_complete : forall rc r rho nd nd', node_match rc rho nd nd' ->
  (forall e, In e (nchildren nd) -> bound_to r rho e) -> node_match_b rc r nd nd' = true.
Proof.
  intros rc r rho nd nd' [M1 [M2 [M3 M4]]] B. unfold node_match_b.
  rewrite (ren_edges_complete r rho _ B), M4.
  rewrite (proj2 (Nat.eqb_eq _ _) M1), (proj2 (Nat.eqb_eq _ _) M2), (proj2 (edges_eqb_eq _ _) eq_refl).
  destruct rc; [rewrite (proj2 (N.eqb_eq _ _) (M3 eq_refl))|]; reflexivity.
Qed.

Section Complete.
Variables (rc onto : bool) (fixed : positive -> bool) (s_m s_r : snap).
Variable roots : list (edge * edge).
Variable rho : positive -> positive.
Hypothesis R : iso_rel rc onto fixed s_m s_r roots rho.
(** the model's table is closed, children sit on deeper levels, levels are below [nlevels] (all part of [WF s_m]) *)
Hypothesis Hlev : forall a nd, find_node s_m a = Some nd -> nlevel nd < nlevels s_m.
Hypothesis Hchild : forall a nd e c, find_node s_m a = Some nd -> In e (nchildren nd) -> eref e = RN c ->
  exists ndc, find_node s_m c = Some ndc /\ nlevel nd < nlevel ndc.
(** the real table has no duplicate nodes (part of [WF s_r]) *)
Hypothesis Huniq : forall j1 j2 n1 n2, find_node s_r j1 = Some n1 -> find_node s_r j2 = Some n2 ->
  nlevel n1 = nlevel n2 -> nchildren n1 = nchildren n2 -> j1 = j2.

Let els := PositiveMap.elements (s_nodes s_m).
Let ix := build_idx s_r.

Definition good (r : rmap) : Prop :=
  forall a b, PositiveMap.find a r = Some b -> in_m s_m a /\ b = rho a.
Definition covers (r : rmap) (L : nat) : Prop :=
  forall a nd, find_node s_m a = Some nd -> (fixed a = true \/ L <= nlevel nd) ->
    PositiveMap.find a r = Some (rho a).
Definition mono (r r' : rmap) : Prop :=
  forall x y, PositiveMap.find x r = Some y -> PositiveMap.find x r' = Some y.

Lemma covers_mono : forall r r' L, mono r r' -> covers r L -> covers r' L.
Proof. intros r r' L Hm Hc a nd E H. apply Hm. apply (Hc a nd E H). Qed.

Lemma in_els : forall p, In p els -> find_node s_m (fst p) = Some (snd p).
Proof. intros [a nd] H. apply find_node_elements. exact H. Qed.

Lemma children_bound : forall r a nd, covers r (S (nlevel nd)) -> find_node s_m a = Some nd ->
  forall e, In e (nchildren nd) -> bound_to r rho e.
Proof.
  intros r a nd C E e He c Hc. destruct (Hchild a nd e c E He Hc) as [ndc [Ec Hl]].
  apply (C c ndc Ec). right. lia.
Qed.

Lemma bind_node_complete : forall r p, good r -> covers r (S (nlevel (snd p))) -> In p els ->
  exists r', bind_node ix fixed r p = Some r' /\ good r' /\ mono r r' /\
             PositiveMap.find (fst p) r' = Some (rho (fst p)).
Proof.
  intros r [a nd] G C Hin. simpl in *. pose proof (in_els _ Hin) as Ea. simpl in Ea.
  unfold bind_node. simpl. destruct (fixed a) eqn:Hf.
  - exists r. split; [reflexivity|]. split; [exact G|]. split; [intros x y F; exact F|].
    apply (C a nd Ea). left. exact Hf.
  - rewrite (ren_edges_complete r rho _ (children_bound r a nd C Ea)).
    destruct (ir_node _ _ _ _ _ _ _ R a nd Ea) as [nd' [En [M1 [M2 [M3 M4]]]]].
    destruct (idx_lookup_complete s_r (rho a) nd' En) as [b' Eb]. fold ix in Eb.
    rewrite <- M1, <- M4 in Eb. rewrite Eb.
    destruct (idx_lookup_sound s_r _ _ _ Eb) as [nd2 [E2 [L2 C2]]].
    assert (b' = rho a) by (apply (Huniq _ _ _ _ E2 En); congruence). subst b'.
    exists (PositiveMap.add a (rho a) r). split; [reflexivity|]. split; [|split].
    + intros x y F. destruct (Pos.eq_dec x a) as [->|N].
      * rewrite PositiveMap.gss in F. inversion F. split; [exists nd; exact Ea|reflexivity].
      * rewrite PositiveMap.gso in F by exact N. exact (G _ _ F).
    + intros x y F. destruct (Pos.eq_dec x a) as [->|N].
      * rewrite PositiveMap.gss. f_equal. symmetry. apply (G _ _ F).
      * rewrite PositiveMap.gso by exact N. exact F.
    + apply PositiveMap.gss.
Qed.

Lemma bind_list_complete : forall k l r, good r -> covers r (S k) ->
  (forall p, In p l -> In p els /\ nlevel (snd p) = k) ->
  exists r', bind_list ix fixed r l = Some r' /\ good r' /\ mono r r' /\
             forall p, In p l -> PositiveMap.find (fst p) r' = Some (rho (fst p)).
Proof.
  intros k. induction l as [|p l IH]; simpl; intros r G C HP.
  - exists r. split; [reflexivity|]. split; [exact G|]. split; [intros x y F; exact F|intros p []].
  - destruct (HP p (or_introl eq_refl)) as [Hin Hl].
    destruct (bind_node_complete r p G ltac:(rewrite Hl; exact C) Hin) as [r1 [E1 [G1 [M1 B1]]]].
    rewrite E1.
    destruct (IH r1 G1 (covers_mono _ _ _ M1 C) (fun q Hq => HP q (or_intror Hq))) as [r2 [E2 [G2 [M2 B2]]]].
    exists r2. split; [exact E2|]. split; [exact G2|]. split; [intros x y F; apply M2; apply M1; exact F|].
    intros q [<-|Hq]; [apply M2; exact B1|apply B2; exact Hq].
Qed.

Lemma bind_levels_complete : forall n r, good r -> covers r n ->
  exists r', bind_levels ix fixed (build_lvl els) n r = Some r' /\ good r' /\ covers r' 0.
Proof.
  induction n as [|k IH]; simpl; intros r G C; [exists r; auto|].
  destruct (bind_list_complete k (lvl_get (build_lvl els) k) r G C) as [r1 [E1 [G1 [M1 B1]]]].
  { intros p Hp. apply build_lvl_spec in Hp. exact Hp. }
  rewrite E1. apply (IH r1 G1).
  intros a nd Ea [Hf|Hl]; [apply M1; apply (C a nd Ea); left; exact Hf|].
  destruct (Nat.eq_dec (nlevel nd) k) as [Ek|Nk].
  - apply (B1 (a, nd)). apply build_lvl_spec. split; [apply find_node_elements; exact Ea|exact Ek].
  - apply M1. apply (C a nd Ea). right. lia.
Qed.

Lemma check_all_complete : forall r, good r -> covers r 0 ->
  forall l inv0, (forall p, In p l -> In p els) -> NoDup (map fst l) ->
  (forall b a, PositiveMap.find b inv0 = Some a -> b = rho a /\ in_m s_m a /\ ~ In a (map fst l)) ->
  exists inv, check_all rc fixed r s_r l inv0 = Some inv.
Proof.
  intros r G C. induction l as [|[a nd] l IH]; simpl; intros inv0 HP ND HI; [eauto|].
  pose proof (in_els _ (HP _ (or_introl eq_refl))) as Ea. simpl in Ea.
  inversion ND as [|? ? Hna ND']; subst.
  unfold check_node. simpl.
  rewrite (C a nd Ea (or_intror (Nat.le_0_l _))).
  destruct (ir_node _ _ _ _ _ _ _ R a nd Ea) as [nd' [En Mn]]. rewrite En.
  rewrite (node_match_b_complete rc r rho nd nd' Mn
             (children_bound r a nd (fun c ndc Ec _ => C c ndc Ec (or_intror (Nat.le_0_l _))) Ea)).
  assert (Tf : (if fixed a then Pos.eqb (rho a) a else true) = true).
  { destruct (fixed a) eqn:Hf; [|reflexivity]. apply Pos.eqb_eq.
    apply (ir_fixed _ _ _ _ _ _ _ R a (ex_intro _ nd Ea) Hf). }
  rewrite Tf. simpl.
  destruct (PositiveMap.find (rho a) inv0) as [a'|] eqn:Fi.
  - exfalso. destruct (HI _ _ Fi) as [E1 [I1 N1]].
    assert (a = a') by (apply (ir_inj _ _ _ _ _ _ _ R); [exists nd; exact Ea|exact I1|exact E1]).
    subst a'. apply N1. left. reflexivity.
  - apply IH; [intros q Hq; apply HP; right; exact Hq|exact ND'|].
    intros b a' F. destruct (Pos.eq_dec b (rho a)) as [->|N].
    + rewrite PositiveMap.gss in F. inversion F; subst a'. split; [reflexivity|]. split; [exists nd; exact Ea|exact Hna].
    + rewrite PositiveMap.gso in F by exact N. destruct (HI _ _ F) as [E1 [I1 N1]].
      split; [exact E1|]. split; [exact I1|]. intros Hin. apply N1. right. exact Hin.
Qed.

Theorem iso_core_complete :
  exists r, iso_core rc onto fixed s_m s_r roots = Some r /\
            forall a, in_m s_m a -> PositiveMap.find a r = Some (rho a).
Proof.
  unfold iso_core, iso_with. fold els. fold ix.
  destruct (bind_levels_complete (nlevels s_m) (bind_fixed fixed els)) as [r [EB [G C]]].
  - intros a b F. apply bind_fixed_find in F. destruct F as [-> [Hf Hin]].
    apply in_map_iff in Hin. destruct Hin as [p [<- Hp]].
    assert (I : in_m s_m (fst p)) by (exists (snd p); apply in_els; exact Hp).
    split; [exact I|]. symmetry. apply (ir_fixed _ _ _ _ _ _ _ R _ I Hf).
  - intros a nd Ea [Hf|Hl]; [|pose proof (Hlev a nd Ea); lia].
    rewrite (ir_fixed _ _ _ _ _ _ _ R a (ex_intro _ nd Ea) Hf). apply bind_fixed_find.
    split; [reflexivity|]. split; [exact Hf|]. apply (in_map fst els (a, nd)). apply find_node_elements. exact Ea.
  - rewrite EB.
    destruct (check_all_complete r G C els (PositiveMap.empty positive)) as [inv EC].
    + auto.
    + apply elements_keys_nodup.
    + intros b a F. rewrite PositiveMap.gempty in F. discriminate.
    + rewrite EC. destruct (check_all_spec _ _ _ _ _ _ _ EC) as [C1 _].
      assert (B : forall a, in_m s_m a -> PositiveMap.find a r = Some (rho a)).
      { intros a [nd Ea]. apply (C a nd Ea). right. lia. }
      assert (TO : (if onto then onto_b s_r inv else true) = true).
      { destruct onto eqn:Ho; [|reflexivity]. unfold onto_b. apply forallb_forall. intros [j nd'] Hj. simpl.
        apply find_node_elements in Hj.
        destruct (ir_onto _ _ _ _ _ _ _ R eq_refl j nd' Hj) as [a [[nd Ea] Ej]].
        apply find_node_elements in Ea. destruct (C1 _ Ea) as [b [n2 [F [_ [_ [_ Fi]]]]]]. simpl in *.
        assert (b = j). { apply find_node_elements in Ea. rewrite (B a (ex_intro _ nd Ea)) in F. congruence. }
        subst b. rewrite Fi. reflexivity. }
      assert (TR : roots_b r roots = true).
      { unfold roots_b. apply forallb_forall. intros p Hp.
        destruct (ir_roots _ _ _ _ _ _ _ R p Hp) as [Hin Hr].
        rewrite (ren_edge_complete r rho (fst p)).
        - apply edge_eqb_eq. exact Hr.
        - intros id Eid. unfold root_in in Hin. rewrite Eid in Hin. apply B. exact Hin. }
      rewrite TO, TR. simpl. exists r. split; [reflexivity|exact B].
Qed.

End Complete.

(** ** Tie to DD/Rename.v: [iso_rel] with [onto] = "[rename_snap rho s_m] and [s_r] store the same nodes" *)

Definition norc (nd : node) : node := mkNode (nlevel nd) (nchildren nd) (nstored nd) 0.

Lemma norc_match : forall rho nd nd', node_match false rho nd nd' <-> norc (rename_node rho nd) = norc nd'.
Proof.
  intros rho [l ch st c] [l' ch' st' c']. unfold node_match, norc, rename_node. simpl. split.
  - intros [-> [-> [_ ->]]]. reflexivity.
  - intros E. inversion E. repeat split; auto. discriminate.
Qed.

Theorem iso_rel_rename : forall rc fixed s_m s_r roots rho, injective rho ->
  iso_rel rc true fixed s_m s_r roots rho ->
  forall j, option_map norc (find_node (rename_snap rho s_m) j) = option_map norc (find_node s_r j) /\
            (rc = true -> find_node (rename_snap rho s_m) j = find_node s_r j).
Proof.
  intros rc fixed s_m s_r roots rho Hinj R j.
  destruct (find_node (rename_snap rho s_m) j) as [nd1|] eqn:E1.
  - destruct (find_rename_inv rho Hinj s_m j nd1 E1) as [id [nd [-> [E ->]]]].
    destruct (ir_node _ _ _ _ _ _ _ R id nd E) as [nd' [En M]]. rewrite En. simpl.
    destruct nd as [l ch st c], nd' as [l' ch' st' c']. destruct M as [M1 [M2 [M3 M4]]].
    unfold norc, rename_node. simpl in *. subst. split; [reflexivity|]. intros Hrc. rewrite (M3 Hrc). reflexivity.
  - destruct (find_node s_r j) as [nd'|] eqn:En; [|split; reflexivity]. exfalso.
    destruct (ir_onto _ _ _ _ _ _ _ R eq_refl j nd' En) as [a [[nd Ea] <-]].
    rewrite (find_rename rho Hinj s_m a), Ea in E1. discriminate.
Qed.

(** ... and back: the relation is nothing more than that *)
Theorem rename_iso_rel : forall fixed s_m s_r roots rho, injective rho ->
  (forall j, option_map norc (find_node (rename_snap rho s_m) j) = option_map norc (find_node s_r j)) ->
  (forall a, in_m s_m a -> fixed a = true -> rho a = a) ->
  (forall p, In p roots -> root_in s_m (fst p) /\ rename_edge rho (fst p) = snd p) ->
  iso_rel false true fixed s_m s_r roots rho.
Proof.
  intros fixed s_m s_r roots rho Hinj HE HF HR. constructor; auto.
  - intros a nd Ea. specialize (HE (rho a)). rewrite (find_rename rho Hinj s_m a), Ea in HE. simpl in HE.
    destruct (find_node s_r (rho a)) as [nd'|]; [|discriminate]. exists nd'. split; [reflexivity|].
    apply norc_match. simpl in HE. congruence.
  - intros _ j nd' En. specialize (HE j). rewrite En in HE.
    destruct (find_node (rename_snap rho s_m) j) as [nd1|] eqn:E1; [|discriminate].
    destruct (find_rename_inv rho Hinj s_m j nd1 E1) as [id [nd [-> [E _]]]]. exists id. split; [exists nd; exact E|reflexivity].
Qed.

(** ** Semantics: mapped edges mean the same (all kinds; an embedding suffices) *)

Lemma kind_eqb_true : forall a b, kind_eqb a b = true -> a = b.
Proof. intros [] []; simpl; intros E; try discriminate; reflexivity. Qed.

Lemma terms_eqb_true : forall a b, terms_eqb a b = true -> a = b.
Proof.
  induction a as [|[x1 x2] a IH]; intros [|[y1 y2] b]; simpl; intros E; try discriminate; [reflexivity|].
  apply andb_true_iff in E. destruct E as [E E3]. apply andb_true_iff in E. destruct E as [E1 E2].
  apply N.eqb_eq in E1. apply N.eqb_eq in E2. subst. f_equal. apply IH. exact E3.
Qed.

Lemma hdr_eqb_true : forall s_m s_r, hdr_eqb s_m s_r = true ->
  s_kind s_m = s_kind s_r /\ s_v2l s_m = s_v2l s_r /\ s_l2v s_m = s_l2v s_r /\ s_terms s_m = s_terms s_r.
Proof.
  intros s_m s_r E. unfold hdr_eqb in E.
  apply andb_true_iff in E. destruct E as [E E4]. apply andb_true_iff in E. destruct E as [E E3].
  apply andb_true_iff in E. destruct E as [E1 E2].
  apply kind_eqb_true in E1. apply nat_list_eqb_eq in E2. apply nat_list_eqb_eq in E3. apply terms_eqb_true in E4. auto.
Qed.

Definition closed (s : snap) : Prop :=
  forall a nd e c, find_node s a = Some nd -> In e (nchildren nd) -> eref e = RN c -> in_m s c.

Definition ref_in (s : snap) (x : ref) : Prop := match x with RN id => in_m s id | RT _ => True end.

Section SemIso.
Variables (rc onto : bool) (fixed : positive -> bool) (s_m s_r : snap).
Variable roots : list (edge * edge).
Variable rho : positive -> positive.
Hypothesis R : iso_rel rc onto fixed s_m s_r roots rho.
Hypothesis Hk : s_kind s_m = s_kind s_r.
Hypothesis Hn : nlevels s_m = nlevels s_r.
Hypothesis Ht : s_terms s_m = s_terms s_r.
Hypothesis Hc : closed s_m.

Lemma term_val_iso : forall t, term_val s_r t = term_val s_m t.
Proof. intros t. unfold term_val. rewrite Ht. reflexivity. Qed.

Lemma child_in : forall a nd i e, find_node s_m a = Some nd -> nth_error (nchildren nd) i = Some e -> ref_in s_m (eref e).
Proof.
  intros a nd i e Ea En. apply nth_error_In in En. unfold ref_in.
  destruct (eref e) as [t|c] eqn:Er; [exact I|]. exact (Hc a nd e c Ea En Er).
Qed.

Lemma semk_iso : forall f x c, ref_in s_m x -> semk s_r f (rename_ref rho x) c = semk s_m f x c.
Proof.
  induction f as [|f IH]; intros [t|id] c Hin; simpl rename_ref;
    try (rewrite !semk_T; apply term_val_iso); [reflexivity|].
  rewrite !semk_S. destruct Hin as [nd Ea]. rewrite Ea.
  destruct (ir_node _ _ _ _ _ _ _ R id nd Ea) as [nd' [En [M1 [_ [_ M4]]]]]. rewrite En.
  rewrite <- M4, <- M1, nth_error_map.
  destruct (nth_error (nchildren nd) (c (nlevel nd))) as [e|] eqn:Ee; [|reflexivity].
  cbn [option_map]. apply (IH (eref e) c). exact (child_in id nd _ e Ea Ee).
Qed.

Lemma semc_iso : forall f e c, ref_in s_m (eref e) -> semc s_r f (rename_edge rho e) c = semc s_m f e c.
Proof.
  induction f as [|f IH]; intros e c Hin; destruct (eref e) as [t|id] eqn:Ee.
  - rewrite (semc_T _ _ (rename_edge rho e) c t), (semc_T _ _ e c t); [reflexivity | exact Ee | simpl; rewrite Ee; reflexivity].
  - rewrite (semc_O _ (rename_edge rho e) c (rho id)), (semc_O _ e c id); [reflexivity | exact Ee | simpl; rewrite Ee; reflexivity].
  - rewrite (semc_T _ _ (rename_edge rho e) c t), (semc_T _ _ e c t); [reflexivity | exact Ee | simpl; rewrite Ee; reflexivity].
  - rewrite (semc_S _ _ (rename_edge rho e) c (rho id)) by (simpl; rewrite Ee; reflexivity).
    rewrite (semc_S _ _ e c id Ee). destruct Hin as [nd Ea]. rewrite Ea.
    destruct (ir_node _ _ _ _ _ _ _ R id nd Ea) as [nd' [En [M1 [_ [_ M4]]]]]. rewrite En.
    rewrite <- M4, <- M1, nth_error_map.
    destruct (nth_error (nchildren nd) (c (nlevel nd))) as [e'|] eqn:Ee'; [|reflexivity].
    cbn [option_map]. rewrite IH by exact (child_in id nd _ e' Ea Ee'). reflexivity.
Qed.

Lemma semz_iso : forall f lvl x c, ref_in s_m x -> semz s_r f lvl (rename_ref rho x) c = semz s_m f lvl x c.
Proof.
  induction f as [|f IH]; intros lvl [t|id] c Hin; simpl rename_ref;
    try (rewrite !semz_T, term_val_iso, Hn; reflexivity); [reflexivity|].
  rewrite !semz_S. destruct Hin as [nd Ea]. rewrite Ea.
  destruct (ir_node _ _ _ _ _ _ _ R id nd Ea) as [nd' [En [M1 [_ [_ M4]]]]]. rewrite En.
  rewrite <- M4, <- M1, nth_error_map.
  destruct (Nat.ltb (nlevel nd) lvl); [reflexivity|].
  destruct (all_lo c lvl (nlevel nd - lvl)); [|reflexivity].
  destruct (nth_error (nchildren nd) (c (nlevel nd))) as [e|] eqn:Ee; [|reflexivity].
  cbn [option_map]. apply (IH _ (eref e) c). exact (child_in id nd _ e Ea Ee).
Qed.

Theorem iso_sem_edge : forall e c, ref_in s_m (eref e) ->
  sem_edge s_r (rename_edge rho e) c = sem_edge s_m e c.
Proof.
  intros e c Hin. unfold sem_edge. rewrite <- Hk, <- Hn. destruct (s_kind s_m).
  - apply (semk_iso _ (eref e) c Hin).
  - rewrite semc_iso by exact Hin. reflexivity.
  - rewrite (semz_iso _ 0 (eref e) c Hin). reflexivity.
  - apply (semk_iso _ (eref e) c Hin).
  - apply (semk_iso _ (eref e) c Hin).
Qed.

(** the ZBDD family (sets of levels) of mapped references *)
Theorem iso_famz : forall f x, ref_in s_m x -> famz s_r f (rename_ref rho x) = famz s_m f x.
Proof.
  induction f as [|f IH]; intros [t|id] Hin; simpl rename_ref;
    try (rewrite !famz_T, term_val_iso; reflexivity); [reflexivity|].
  rewrite !famz_S. destruct Hin as [nd Ea]. rewrite Ea.
  destruct (ir_node _ _ _ _ _ _ _ R id nd Ea) as [nd' [En [M1 [_ [_ M4]]]]]. rewrite En.
  rewrite <- M4, <- M1.
  destruct (nchildren nd) as [|hi [|lo [|x l]]] eqn:Ech; try reflexivity.
  cbn [map rename_edge eref].
  rewrite (IH (eref hi)), (IH (eref lo)); [reflexivity| |].
  - apply (child_in id nd 1 lo Ea). rewrite Ech. reflexivity.
  - apply (child_in id nd 0 hi Ea). rewrite Ech. reflexivity.
Qed.

End SemIso.

(** ** The checker's verdict, semantically *)

Theorem iso_with_sem : forall ix rc onto fixed s_m s_r roots r,
  iso_with ix rc onto fixed s_m s_r roots = Some r -> hdr_eqb s_m s_r = true -> closed s_m ->
  forall p, In p roots -> forall c, sem_edge s_r (snd p) c = sem_edge s_m (fst p) c.
Proof.
  intros ix rc onto fixed s_m s_r roots r E H Hc p Hp c.
  destruct (iso_with_sound _ _ _ _ _ _ _ _ E) as [rho [_ [_ [_ R]]]].
  destruct (hdr_eqb_true _ _ H) as [H1 [_ [H3 H4]]].
  destruct (ir_roots _ _ _ _ _ _ _ R p Hp) as [Hin <-].
  apply (iso_sem_edge rc onto fixed s_m s_r roots rho R H1 ltac:(unfold nlevels; rewrite H3; reflexivity) H4 Hc).
  exact Hin.
Qed.

Theorem iso_with_famz : forall ix rc onto fixed s_m s_r roots r,
  iso_with ix rc onto fixed s_m s_r roots = Some r -> hdr_eqb s_m s_r = true -> closed s_m ->
  forall p, In p roots -> forall f, famz s_r f (eref (snd p)) = famz s_m f (eref (fst p)).
Proof.
  intros ix rc onto fixed s_m s_r roots r E H Hc p Hp f.
  destruct (iso_with_sound _ _ _ _ _ _ _ _ E) as [rho [_ [_ [_ R]]]].
  destruct (hdr_eqb_true _ _ H) as [_ [_ [_ H4]]].
  destruct (ir_roots _ _ _ _ _ _ _ R p Hp) as [Hin <-].
  apply (iso_famz rc onto fixed s_m s_r roots rho R H4 Hc). exact Hin.
Qed.

Lemma wf_closed : forall s, WF s -> closed s.
Proof.
  intros s H a nd e c Ea He Ec. destruct (wf_child s H a nd e Ea He) as [O _]. rewrite Ec in O. exact O.
Qed.

(** ** Completeness for well-formed tables, and the form with an [old] table *)

Theorem iso_core_complete_wf : forall rc onto fixed s_m s_r roots rho,
  WF s_m -> WF s_r -> iso_rel rc onto fixed s_m s_r roots rho ->
  exists r, iso_core rc onto fixed s_m s_r roots = Some r /\
            forall a, in_m s_m a -> PositiveMap.find a r = Some (rho a).
Proof.
  intros rc onto fixed s_m s_r roots rho Wm Wr R.
  apply (iso_core_complete rc onto fixed s_m s_r roots rho R).
  - exact (wf_level s_m Wm).
  - intros a nd e c Ea He Ec. destruct (wf_child s_m Wm a nd e Ea He) as [O L]. rewrite Ec in O, L.
    destruct O as [ndc Ecn]. exists ndc. split; [exact Ecn|]. rewrite (rlevel_node s_m c ndc Ecn) in L. exact L.
  - exact (wf_unique s_r Wr).
Qed.

Definition old_in (old s : snap) : Prop :=
  forall id nd, find_node old id = Some nd ->
    exists nd', find_node s id = Some nd' /\ nlevel nd = nlevel nd' /\ nstored nd = nstored nd' /\ nchildren nd = nchildren nd'.

Lemma old_in_b_spec : forall old s, old_in_b old s = true <-> old_in old s.
Proof.
  intros old s. unfold old_in_b, old_in. rewrite forallb_forall. split.
  - intros H id nd E. apply find_node_elements in E. specialize (H _ E). simpl in H.
    destruct (find_node s id) as [nd'|]; [|discriminate]. exists nd'. split; [reflexivity|].
    unfold same_shape_b in H. apply andb_true_iff in H. destruct H as [H H3]. apply andb_true_iff in H. destruct H as [H1 H2].
    apply Nat.eqb_eq in H1. apply Nat.eqb_eq in H2. apply edges_eqb_eq in H3. auto.
  - intros H [id nd] E. apply (find_node_elements old) in E. destruct (H id nd E) as [nd' [En [H1 [H2 H3]]]]. simpl.
    rewrite En. unfold same_shape_b. rewrite H1, H2, H3, !Nat.eqb_refl. simpl. apply edges_eqb_eq. reflexivity.
Qed.

Lemma in_snap_b_spec : forall s id, in_snap_b s id = true <-> in_m s id.
Proof.
  intros s id. unfold in_snap_b, in_m. destruct (find_node s id) as [nd|]; split; intros H; eauto; [discriminate|].
  destruct H as [x H]. discriminate.
Qed.

Lemma iso_old_sound : forall onto old s_m s_r roots r,
  (if old_in_b old s_m && old_in_b old s_r then iso_core false onto (in_snap_b old) s_m s_r roots else None) = Some r ->
  old_in old s_m /\ old_in old s_r /\
  exists rho, injective rho /\ (forall a, in_m s_m a -> PositiveMap.find a r = Some (rho a)) /\
    (forall a, in_m old a -> rho a = a) /\ iso_rel false onto (in_snap_b old) s_m s_r roots rho.
Proof.
  intros onto old s_m s_r roots r E.
  destruct (old_in_b old s_m && old_in_b old s_r) eqn:T; [|discriminate].
  apply andb_true_iff in T. destruct T as [T1 T2]. apply old_in_b_spec in T1. apply old_in_b_spec in T2.
  split; [exact T1|]. split; [exact T2|].
  destruct (iso_with_sound _ _ _ _ _ _ _ _ E) as [rho [Hinj [_ [B R]]]].
  exists rho. split; [exact Hinj|]. split; [exact B|]. split; [|exact R].
  intros a [nd Ea]. destruct (T1 a nd Ea) as [nd' [En _]].
  apply (ir_fixed _ _ _ _ _ _ _ R a (ex_intro _ nd' En)). apply in_snap_b_spec. exists nd. exact Ea.
Qed.

(** [iso_ext_b old s_m s_r roots]: the old nodes are stored unchanged in both
    tables, and the rest of the model's table is the rest of the real table up to an injective renaming
    that fixes the old ids and maps the roots *)
Theorem iso_ext_b_sound : forall old s_m s_r roots r, iso_ext_b old s_m s_r roots = Some r ->
  old_in old s_m /\ old_in old s_r /\
  exists rho, injective rho /\ (forall a, in_m s_m a -> PositiveMap.find a r = Some (rho a)) /\
    (forall a, in_m old a -> rho a = a) /\ iso_rel false true (in_snap_b old) s_m s_r roots rho.
Proof. exact (iso_old_sound true). Qed.

Theorem iso_ext_b_complete : forall old s_m s_r roots rho, WF s_m -> WF s_r ->
  old_in old s_m -> old_in old s_r -> iso_rel false true (in_snap_b old) s_m s_r roots rho ->
  exists r, iso_ext_b old s_m s_r roots = Some r /\ forall a, in_m s_m a -> PositiveMap.find a r = Some (rho a).
Proof.
  intros old s_m s_r roots rho Wm Wr O1 O2 R. unfold iso_ext_b.
  rewrite (proj2 (old_in_b_spec old s_m) O1), (proj2 (old_in_b_spec old s_r) O2). simpl.
  apply (iso_core_complete_wf _ _ _ _ _ _ rho Wm Wr R).
Qed.

(** the embedding variant: the real table may hold further nodes *)
Theorem iso_emb_b_sound : forall old s_m s_r roots r, iso_emb_b old s_m s_r roots = Some r ->
  old_in old s_m /\ old_in old s_r /\
  exists rho, injective rho /\ (forall a, in_m s_m a -> PositiveMap.find a r = Some (rho a)) /\
    iso_rel false false (in_snap_b old) s_m s_r roots rho.
Proof.
  intros old s_m s_r roots r E.
  destruct (iso_old_sound false old s_m s_r roots r E) as [T1 [T2 [rho [Hinj [B [_ R]]]]]]. eauto 6.
Qed.

(** a new node of the model is never mapped onto an old id *)
Lemma iso_new_not_fixed : forall rc onto fixed s_m s_r roots rho, iso_rel rc onto fixed s_m s_r roots rho ->
  forall a o, in_m s_m a -> in_m s_m o -> fixed o = true -> a <> o -> rho a <> o.
Proof.
  intros rc onto fixed s_m s_r roots rho R a o Ia Io Hf Hne E. apply Hne.
  apply (ir_inj _ _ _ _ _ _ _ R a o Ia Io). rewrite (ir_fixed _ _ _ _ _ _ _ R o Io Hf). exact E.
Qed.

(** whole snapshots: header, handles, nodes *)
Lemma handle_pairs_spec : forall a b l, handle_pairs a b = Some l ->
  map fst a = map fst b /\ l = combine (map snd a) (map snd b).
Proof.
  induction a as [|x a IH]; intros [|y b] l E; simpl in E; try discriminate; [inversion E; auto|].
  destruct (N.eqb (fst x) (fst y)) eqn:Ex; [|discriminate].
  destruct (handle_pairs a b) as [l'|] eqn:El; [|discriminate]. inversion E; subst l.
  apply N.eqb_eq in Ex. destruct (IH _ _ El) as [H1 H2]. simpl. rewrite Ex, H1, H2. auto.
Qed.

Theorem iso_snap_b_sound : forall fixed s_m s_r roots r, iso_snap_b fixed s_m s_r roots = Some r ->
  s_kind s_m = s_kind s_r /\ s_v2l s_m = s_v2l s_r /\ s_l2v s_m = s_l2v s_r /\ s_terms s_m = s_terms s_r /\
  map fst (s_handles s_m) = map fst (s_handles s_r) /\
  exists rho, injective rho /\ (forall a, in_m s_m a -> PositiveMap.find a r = Some (rho a)) /\
    iso_rel false true fixed s_m s_r
      (combine (map snd (s_handles s_m)) (map snd (s_handles s_r)) ++ roots) rho.
Proof.
  intros fixed s_m s_r roots r E. unfold iso_snap_b in E.
  destruct (hdr_eqb s_m s_r) eqn:H; [|discriminate].
  destruct (handle_pairs (s_handles s_m) (s_handles s_r)) as [hp|] eqn:Hp; [|discriminate].
  destruct (hdr_eqb_true _ _ H) as [H1 [H2 [H3 H4]]]. destruct (handle_pairs_spec _ _ _ Hp) as [H5 ->].
  repeat (split; [assumption|]).
  destruct (iso_with_sound _ _ _ _ _ _ _ _ E) as [rho [Hinj [_ [B R]]]]. exists rho. auto.
Qed.

(** ** A concrete instance (the hypotheses are satisfiable; the checker tells the tables apart) *)

Definition ex_e (r : ref) : edge := mkEdge r false.
Definition ex_tab (top : positive) (lo : ref) : snap :=
  mkSnap KBdd
    (PositiveMap.add top (mkNode 0 [ex_e (RN 1); ex_e lo] 0 1)
       (PositiveMap.add 1%positive (mkNode 1 [ex_e (RT 1); ex_e (RT 0)] 1 1) (PositiveMap.empty node)))
    [(0%N, 0%N); (1%N, 1%N)] [0; 1] [0; 1] [(0%N, ex_e (RN top))].
Definition ex_old : snap :=
  mkSnap KBdd (PositiveMap.add 1%positive (mkNode 1 [ex_e (RT 1); ex_e (RT 0)] 1 1) (PositiveMap.empty node))
    [(0%N, 0%N); (1%N, 1%N)] [0; 1] [0; 1] [].

Example ex_iso_accepts :
  wf_b (ex_tab 5 (RT 0)) = true /\ wf_b (ex_tab 9 (RT 0)) = true /\
  option_map (fun r => (PositiveMap.find 1%positive r, PositiveMap.find 5%positive r))
    (iso_ext_b ex_old (ex_tab 5 (RT 0)) (ex_tab 9 (RT 0)) [(ex_e (RN 5), ex_e (RN 9))])
  = Some (Some 1%positive, Some 9%positive) /\
  (exists r, iso_snap_b (in_snap_b ex_old) (ex_tab 5 (RT 0)) (ex_tab 9 (RT 0)) [] = Some r).
Proof. repeat split; try (vm_compute; reflexivity). eexists. vm_compute. reflexivity. Qed.

Example ex_iso_rejects :
  iso_ext_b ex_old (ex_tab 5 (RT 0)) (ex_tab 9 (RT 1)) [] = None /\
  iso_ext_b ex_old (ex_tab 5 (RT 0)) (ex_tab 9 (RT 0)) [(ex_e (RN 5), ex_e (RN 1))] = None /\
  iso_ext_b (ex_tab 5 (RT 0)) (ex_tab 5 (RT 0)) (ex_tab 9 (RT 0)) [] = None.
Proof. repeat split; vm_compute; reflexivity. Qed.
