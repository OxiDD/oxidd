(** * MTBDD<F64> at function level: the theorems of the generic development
      (DD/MtG*.v) instantiated with [f64_alg] / [f64_laws], read in terms of
      the scalar model Num/F64.v, and a concrete MTBDD<F64> table

    - [f64_invariant]: what [MtOK] means for F64 tables: well-formed, every
      terminal value a normalised pattern; decided by [f64m_ok_b];
    - [f64_terms_normalised]: in such a table no terminal holds -0.0, every NaN
      terminal holds the pattern of [f64::NAN], no two terminals hold the same
      value - hence at most one NaN terminal;
    - [f64_apply_pointwise], [f64_apply_nan], [f64_apply_normalised],
      [f64_canonical]: apply = pointwise lifting of the Flocq operation +
      normalisation, NaN propagates, the result table is normalised again, the
      result is THE reference with that meaning;
    - [f64_const_ok], [f64_var_ok]; if-then-else and restrict need no reading in
      terms of Num/F64.v: [MtGIte.mt_apply_ite_ok], [MtGRestrict.mt_restrict_ok]
      and their corollaries in DD/MtGTop.v are used at [f64_alg] as they stand;
    - [exf_*]: a table built by the model itself (x0, x1, 0.5 * x0 + x1) with
      runs that produce NaN, infinities and -0.0 candidates. *)

From Coq Require Import List NArith ZArith PArith Bool Arith Lia FMapPositive.
From Flocq Require Import IEEE754.Binary IEEE754.Bits.
From OxiVerif Require Import DD.Table DD.TableProofs DD.Canon DD.Sem DD.Build DD.BuildProofs
  DD.Apply DD.ApplyProofs DD.ApplyEvalProofs DD.MtG DD.MtGBase DD.MtGProofs DD.MtGIte DD.MtGRestrict
  DD.MtGTop Num.F64 Num.F64Proofs DD.MtF64 DD.MtF64Laws.
Import ListNotations.

(** ** The invariant *)

Theorem f64_invariant : forall s,
  (f64m_ok_b s = true <-> MtOK (TA := f64_alg) s) /\
  (MtOK (TA := f64_alg) s <->
   (WF s /\ s_kind s = KMtbdd /\ forall t c, term_val s t = Some c -> f64_normal (Z.of_N c))).
Proof.
  intros s. split; [apply mt_ok_b_spec|]. split.
  - intros B. split; [apply (mo_wf s B)|]. split; [apply (mo_kind s B)|].
    intros t c E. apply f64_twf_iff. apply (mo_vals s B t c E).
  - intros (W & K & V). constructor; [exact W | exact K|].
    intros t c E. apply f64_twf_iff. apply (V t c E).
Qed.

(** every terminal stored is normalised: no -0.0, a single NaN pattern, and
    values are hash-consed (one terminal per value) *)
Definition f64_terms_normalised (s : snap) : Prop :=
  (forall t c, term_val s t = Some c ->
     f64_normal (Z.of_N c) /\
     Z.of_N c <> f64_NEG_ZERO_bits /\
     (is_nan 53 1024 (b64_of_bits (Z.of_N c)) = true -> Z.of_N c = f64_NAN_bits)) /\
  (forall t1 t2 c, term_val s t1 = Some c -> term_val s t2 = Some c -> t1 = t2) /\
  (forall t1 t2 c1 c2, term_val s t1 = Some c1 -> term_val s t2 = Some c2 ->
     is_nan 53 1024 (b64_of_bits (Z.of_N c1)) = true ->
     is_nan 53 1024 (b64_of_bits (Z.of_N c2)) = true -> t1 = t2).

Theorem f64_ok_terms_normalised : forall s, MtOK (TA := f64_alg) s -> f64_terms_normalised s.
Proof.
  intros s B. pose proof (mo_wf s B) as H.
  assert (V : forall t c, term_val s t = Some c -> f64_normal (Z.of_N c)).
  { intros t c E. apply f64_twf_iff. apply (mo_vals s B t c E). }
  assert (U : forall t1 t2 c, term_val s t1 = Some c -> term_val s t2 = Some c -> t1 = t2)
    by (intros t1 t2 c E1 E2; apply (term_val_inj s t1 t2 c H E1 E2)).
  split; [|split; [exact U|]].
  - intros t c E. pose proof (V t c E) as Hn. split; [exact Hn|].
    apply f64_normal_char in Hn. tauto.
  - intros t1 t2 c1 c2 E1 E2 N1 N2.
    pose proof (V t1 c1 E1) as H1. pose proof (V t2 c2 E2) as H2.
    apply f64_normal_char in H1, H2.
    assert (Ec : c1 = c2) by (apply N2Z.inj; rewrite (proj2 (proj2 H1) N1), (proj2 (proj2 H2) N2); reflexivity).
    subst c2. apply (U t1 t2 c1 E1 E2).
Qed.

(** the value of reference [r] under the choice [c0] is the pattern [x] *)
Definition fvalue (s : snap) (r : ref) (c0 : nat -> nat) (x : N) : Prop :=
  semk s (FUEL s) r c0 = Some x.

Lemma fvalue_mvalue : forall s r c0 x, fvalue s r c0 x <-> mvalue (TA := f64_alg) s r c0 x.
Proof. intros. reflexivity. Qed.

(** ** apply_bin *)

Section F64Apply.
Variable gt : ref -> ref -> bool.
Variable C : Type.
Variable cget : C -> N -> list ref -> option ref.
Variable cadd : C -> N -> list ref -> ref -> C.
Hypothesis Hlossy : lossy cget cadd.

(** add/sub/mul/div/min/max on MTBDD<F64>: with enough fuel the algorithm
    returns, for every normalised table and correct cache, a reference whose
    value under every choice is the Flocq operation + normalisation
    ([f64_mop], Num/F64.v) of the operands' values *)
Theorem f64_apply_pointwise : forall op fuel s c f g,
  MtOK (TA := f64_alg) s -> MCacheOK (TA := f64_alg) cget s c -> ref_ok s f -> ref_ok s g ->
  FUEL s <= fuel ->
  exists s' c' r,
    mt_apply_bin (TA := f64_alg) gt C cget cadd fuel s c op f g = Some (s', c', r) /\
    MtOK (TA := f64_alg) s' /\ mext s s' /\ MCacheOK (TA := f64_alg) cget s' c' /\ ref_ok s' r /\
    forall c0, bchoice c0 -> exists x y z : N,
      fvalue s f c0 x /\ fvalue s g c0 y /\ fvalue s' r c0 z /\
      Z.of_N z = f64_mop op (Z.of_N x) (Z.of_N y).
Proof.
  intros op fuel s c f g B O Hf Hg Hfuel.
  destruct (mt_apply_bin_sound gt C cget cadd Hlossy op fuel s c f g B O Hf Hg Hfuel)
    as (s' & c' & r & E & B' & X & O' & Hr & P).
  exists s', c', r. repeat (split; [assumption|]).
  intros c0 Hc. destruct (P c0 Hc) as (x & y & Vx & Vy & Vr).
  exists x, y, (mop_eval (TA := f64_alg) op x y).
  split; [exact Vx|]. split; [exact Vy|]. split; [exact Vr|]. apply f64_mop_eval.
Qed.

(** NaN propagates pointwise: where an operand is NaN the result is (the one) NaN *)
Theorem f64_apply_nan : forall op fuel s c f g s' c' r,
  MtOK (TA := f64_alg) s -> MCacheOK (TA := f64_alg) cget s c -> ref_ok s f -> ref_ok s g ->
  FUEL s <= fuel ->
  mt_apply_bin (TA := f64_alg) gt C cget cadd fuel s c op f g = Some (s', c', r) ->
  forall c0, bchoice c0 ->
    (fvalue s f c0 (Z.to_N f64_nan) \/ fvalue s g c0 (Z.to_N f64_nan)) ->
    fvalue s' r c0 (Z.to_N f64_nan).
Proof. exact (mt_apply_bin_nan (TA := f64_alg) gt C cget cadd Hlossy). Qed.

(** every terminal of the result table is normalised *)
Theorem f64_apply_normalised : forall op fuel s c f g s' c' r,
  MtOK (TA := f64_alg) s -> MCacheOK (TA := f64_alg) cget s c -> ref_ok s f -> ref_ok s g ->
  FUEL s <= fuel ->
  mt_apply_bin (TA := f64_alg) gt C cget cadd fuel s c op f g = Some (s', c', r) ->
  f64_terms_normalised s'.
Proof.
  intros op fuel s c f g s' c' r B O Hf Hg Hfuel E.
  destruct (mt_apply_bin_sound gt C cget cadd Hlossy op fuel s c f g B O Hf Hg Hfuel)
    as (s1 & c1 & r1 & E1 & B' & _).
  rewrite E in E1. inversion E1; subst. apply f64_ok_terms_normalised. exact B'.
Qed.

End F64Apply.

(** canonicity: in a normalised table two references with the same values
    under all choices are the same reference (so handle equality decides
    function equality - also for NaN and zero values, thanks to the
    normalisation) *)
Theorem f64_canonical : forall s r1 r2,
  MtOK (TA := f64_alg) s -> ref_ok s r1 -> ref_ok s r2 ->
  (forall c0, bchoice c0 -> semk s (FUEL s) r1 c0 = semk s (FUEL s) r2 c0) -> r1 = r2.
Proof. exact (mt_canonical (TA := f64_alg)). Qed.

(** ** Constants and variables *)

(** [constant(F64::from(f64::from_bits(x)))] for an arbitrary pattern [x]:
    the terminal holds the normalised pattern *)
Theorem f64_const_ok : forall s x s' r, MtOK (TA := f64_alg) s -> f64m_const s x = (s', r) ->
  MtOK (TA := f64_alg) s' /\ mext s s' /\ ref_ok s' r /\
  (forall c0, fvalue s' r c0 (Z.to_N (f64_from_bits x))) /\
  Z.of_N (Z.to_N (f64_from_bits x)) = f64_from_bits x /\
  (forall r0, DenM (TA := f64_alg) s r0 (fun _ => Z.to_N (f64_from_bits x)) -> s' = s /\ r = r0).
Proof.
  intros s x s' r B E. unfold f64m_const in E.
  assert (R : (0 <= f64_from_bits x < 2 ^ 64)%Z) by apply to_bits_range.
  assert (Zx : Z.of_N (Z.to_N (f64_from_bits x)) = f64_from_bits x) by (apply Z2N.id; lia).
  assert (W : twf (A := f64_alg) (Z.to_N (f64_from_bits x))).
  { apply f64_twf_iff. rewrite Zx. apply f64_from_bits_normal. }
  destruct (mt_const_ok s _ s' r B W E) as (B' & X & D & S).
  split; [exact B'|]. split; [exact X|]. split; [apply (proj1 D)|].
  split; [|split; [exact Zx | exact S]].
  intros c0. unfold fvalue, FUEL.
  destruct (denm_const_term s' r _ B' D) as (t & -> & Et). rewrite semk_T. exact Et.
Qed.

Theorem f64_var_ok : forall s v, MtOK (TA := f64_alg) s -> v < nlevels s ->
  exists lvl s' r, nth_error (s_v2l s) v = Some lvl /\ f64m_var s v = Some (s', r) /\
    MtOK (TA := f64_alg) s' /\ mext s s' /\ ref_ok s' r /\
    forall c0, bchoice c0 ->
      fvalue s' r c0 (if Nat.eqb (c0 lvl) 0 then Z.to_N f64_one else Z.to_N f64_zero).
Proof.
  intros s v B Hv. destruct (mt_var_ok s v B Hv) as (lvl & s' & r & E1 & E2 & B' & X & D).
  exists lvl, s', r. repeat (split; [assumption|]). split; [apply (proj1 D)|].
  intros c0 Hc. unfold fvalue, FUEL. rewrite (proj2 D c0 Hc). cbn [t_code f64_alg].
  destruct (Nat.eqb (c0 lvl) 0); reflexivity.
Qed.

(** ** A concrete MTBDD<F64> table (hypotheses satisfiable, model runs) *)

Definition fgt_id (a b : ref) : bool :=
  match a, b with
  | RN x, RN y => Pos.ltb y x
  | RN _, RT _ => true
  | RT x, RT y => N.ltb y x
  | RT _, RN _ => false
  end.

(** a fresh manager with two variables *)
Definition exf0 : snap := mkSnap KMtbdd (PositiveMap.empty node) [] [0; 1] [0; 1] [].

Definition fbin (s : snap) (c : acache) (k : N) (f g : ref) :=
  f64m_apply_bin fgt_id acache ac_get ac_add (S (nlevels s)) s c k f g.

Definition f64_HALF : Z := 0x3FE0000000000000.
Definition f64_MONE : Z := 0xBFF0000000000000.
Definition f64_1P5 : Z := 0x3FF8000000000000.

(** x0, x1, f = 0.5 * x0 + x1, built by the model *)
Definition exf_build : option (snap * acache * (ref * ref * ref)) :=
  match f64m_var exf0 0 with
  | Some (s1, x0) =>
    match f64m_var s1 1 with
    | Some (s2, x1) =>
      let '(s3, half) := f64m_const s2 f64_HALF in
      match fbin s3 [] 2 half x0 with
      | Some (s4, c4, m) =>
        match fbin s4 c4 0 m x1 with
        | Some (s5, c5, f) => Some (s5, c5, (x0, x1, f))
        | None => None
        end
      | None => None
      end
    | None => None
    end
  | None => None
  end.

Definition exf1 : snap := match exf_build with Some (s, _, _) => s | None => exf0 end.
Definition exf_x0 : ref := match exf_build with Some (_, _, (x, _, _)) => x | None => RT 0 end.
Definition exf_x1 : ref := match exf_build with Some (_, _, (_, x, _)) => x | None => RT 0 end.
Definition exf_f : ref := match exf_build with Some (_, _, (_, _, x)) => x | None => RT 0 end.

Example exf0_ok : MtOK (TA := f64_alg) exf0.
Proof. apply mt_ok_b_spec. vm_compute. reflexivity. Qed.

Example exf1_ok : MtOK (TA := f64_alg) exf1.
Proof. apply mt_ok_b_spec. vm_compute. reflexivity. Qed.

(** value table by [eval]: assignments (x0, x1) = 00, 10, 01, 11, as patterns in [Z] *)
Definition fvt (s : snap) (r : ref) : list (option Z) :=
  map (fun p : bool * bool => option_map Z.of_N (f64m_eval s r [(0, fst p); (1, snd p)]))
      [(false, false); (true, false); (false, true); (true, true)].

Definition frun_vt (res : option (snap * acache * ref)) : list (option Z) :=
  match res with Some (s, _, r) => fvt s r | None => [] end.

Example exf_f_table : fvt exf1 exf_f = [Some f64_zero; Some f64_HALF; Some f64_one; Some f64_1P5].
Proof. vm_compute. reflexivity. Qed.

(** NaN, infinities and -0.0 candidates at function level:
    x0 * inf = [0*inf = NaN, inf]; (-1) * x0 = [-0.0 -> +0.0, -1] (so it shares
    the terminal 0 with x0); f / x1 = [0/0 = NaN, 0.5/0 = +inf, 1, 1.5];
    f - f = the terminal 0 *)
Example exf_special :
  (let '(s, i) := f64m_const exf1 f64_INF in frun_vt (fbin s [] 2 exf_x0 i))
  = [Some f64_nan; Some f64_INF; Some f64_nan; Some f64_INF] /\
  (let '(s, m1) := f64m_const exf1 f64_MONE in frun_vt (fbin s [] 2 m1 exf_x0))
  = [Some f64_zero; Some f64_MONE; Some f64_zero; Some f64_MONE] /\
  frun_vt (fbin exf1 [] 3 exf_f exf_x1) = [Some f64_nan; Some f64_INF; Some f64_one; Some f64_1P5] /\
  (match fbin exf1 [] 1 exf_f exf_f with
   | Some (s, _, RT t) => term_val s t = Some 0%N
   | _ => False
   end).
Proof. vm_compute. repeat split; reflexivity. Qed.

(** ite with a condition that is not 0-1-valued (f = 0, 0.5, 1, 1.5): every
    non-zero value (also NaN) selects the then-operand; restrict(f, x0 := 1) *)
Example exf_ite_restrict :
  frun_vt (f64m_apply_ite acache ac_get ac_add 3 exf1 [] exf_f exf_x0 exf_x1)
  = [Some f64_zero; Some f64_one; Some f64_zero; Some f64_one] /\
  (let '(s, n) := f64m_const exf1 f64_nan in
   frun_vt (f64m_apply_ite acache ac_get ac_add 3 s [] n exf_x0 exf_x1))
  = [Some f64_zero; Some f64_one; Some f64_zero; Some f64_one] /\
  f64m_cube_lits 3 exf1 exf_x0 = Some [(0, true)] /\
  frun_vt (f64m_restrict acache ac_get ac_add 3 exf1 [] exf_f exf_x0)
  = [Some f64_HALF; Some f64_HALF; Some f64_1P5; Some f64_1P5].
Proof. vm_compute. repeat split; reflexivity. Qed.

Theorem f64_hypotheses_satisfiable :
  MtOK (TA := f64_alg) exf0 /\ MtOK (TA := f64_alg) exf1 /\ MCacheOK (TA := f64_alg) ac_get exf1 [] /\
  ref_ok exf1 exf_f /\ ref_ok exf1 exf_x0 /\ Cube (TA := f64_alg) exf1 exf_x0 [(0, true)] /\
  fvt exf1 exf_f = [Some f64_zero; Some f64_HALF; Some f64_one; Some f64_1P5].
Proof.
  split; [exact exf0_ok|]. split; [exact exf1_ok|]. split; [apply mac_empty_ok|].
  split; [vm_compute; eexists; reflexivity|]. split; [vm_compute; eexists; reflexivity|].
  split; [apply (cube_lits_sound exf1 exf1_ok 3); vm_compute; reflexivity | exact exf_f_table].
Qed.
