(** * Foundations for the generic MTBDD apply proofs (DD/MtG.v)

    The terminal type is abstract: everything is proved from the scalar laws collected in the class [tlaws]
    (instances: [MtF64Proofs.f64_laws] for the normalised binary64 values of
    terminal/f64.rs, [MtI64.i64_laws] for terminal/i64.rs).

    - [tlaws]: the laws of the terminal type the function-level proofs need;
    - [MtOK]: the invariant (well-formed MTBDD table whose terminal values are
      values of the Rust type: [t_wfb]), decided by [mt_ok_b];
    - [mext s s'], [DenM s r phi], [get_terminal_ok], independence of levels,
      Shannon cofactors, the node step ([mk_node]), canonicity inside one table. *)

From Coq Require Import List NArith ZArith PArith Bool Arith Lia FMapPositive.
From OxiVerif Require Import DD.Table DD.TableProofs DD.Canon DD.Sem DD.Build DD.BuildProofs
  DD.Apply DD.ApplyProofs DD.MtG.
Import ListNotations.

Notation cupd := TableProofs.upd.

(** the values of the Rust type *)
Definition twf {A : talg} (v : tV) : Prop := t_wfb v = true.

(** ** The scalar laws

    One field per fact the proofs use; the comment names the place in
    oxidd-rules-mtbdd/src/lib.rs [terminal_bin] / apply_rec.rs that relies on it.
    Laws about values are only required for values of the Rust type ([twf]). *)
Class tlaws (A : talg) : Prop := mkTlaws {
  (* values <-> their identity for Eq/Hash *)
  t_decode_code : forall v : tV, t_decode (t_code v) = v;
  t_code_decode : forall n : N, t_code (t_decode n) = n;
  (* [is_zero]/[is_one]/[is_nan] = comparison with the constant *)
  t_is_zero_spec : forall a : tV, t_is_zero a = true <-> a = t_zero;
  t_is_one_spec : forall a : tV, t_is_one a = true <-> a = t_one;
  t_is_nan_spec : forall a : tV, t_is_nan a = true <-> a = t_nan;
  t_zero_ne_one : @t_zero A <> t_one;
  (* the constants and the results of the operations are values of the type *)
  t_zero_wf : twf t_zero;
  t_one_wf : twf t_one;
  t_nan_wf : twf t_nan;
  t_add_wf : forall a b : tV, twf a -> twf b -> twf (t_add a b);
  t_sub_wf : forall a b : tV, twf a -> twf b -> twf (t_sub a b);
  t_mul_wf : forall a b : tV, twf a -> twf b -> twf (t_mul a b);
  t_div_wf : forall a b : tV, twf a -> twf b -> twf (t_div a b);
  (* Add: [(Terminal(t), _) if t.is_zero() => g], [(_, Terminal(t)) if t.is_zero() => f] *)
  t_add_zero_l : forall t x : tV, t_is_zero t = true -> twf x -> t_add t x = x;
  t_add_zero_r : forall t x : tV, t_is_zero t = true -> twf x -> t_add x t = x;
  (* Sub: [(_, Terminal(t)) if t.is_zero() => f] *)
  t_sub_zero_r : forall t x : tV, t_is_zero t = true -> twf x -> t_sub x t = x;
  (* Mul: [(Terminal(t), _) if t.is_one() => g], [(_, Terminal(t)) if t.is_one() => f] *)
  t_mul_one_l : forall t x : tV, t_is_one t = true -> twf x -> t_mul t x = x;
  t_mul_one_r : forall t x : tV, t_is_one t = true -> twf x -> t_mul x t = x;
  (* Div: [(_, Terminal(t)) if t.is_one() => f] *)
  t_div_one_r : forall t x : tV, t_is_one t = true -> twf x -> t_div x t = x;
  (* all six: [(Terminal(t), _) | (_, Terminal(t)) if t.is_nan() => nan] *)
  t_nan_absorbing : forall t x : tV, t_is_nan t = true -> twf x ->
    t_add t x = t_nan /\ t_add x t = t_nan /\
    t_sub t x = t_nan /\ t_sub x t = t_nan /\
    t_mul t x = t_nan /\ t_mul x t = t_nan /\
    t_div t x = t_nan /\ t_div x t = t_nan /\
    t_min t x = t_nan /\ t_min x t = t_nan /\
    t_max t x = t_nan /\ t_max x t = t_nan;
  (* Add, Mul, Min, Max: [_ if f > g => Binary(op, g, f)] *)
  t_add_comm : forall a b : tV, twf a -> twf b -> t_add a b = t_add b a;
  t_mul_comm : forall a b : tV, twf a -> twf b -> t_mul a b = t_mul b a;
  t_min_comm : forall a b : tV, twf a -> twf b -> t_min a b = t_min b a;
  t_max_comm : forall a b : tV, twf a -> twf b -> t_max a b = t_max b a;
  (* Min, Max: [if f == g { return f }] *)
  t_min_idem : forall a : tV, twf a -> t_min a a = a;
  t_max_idem : forall a : tV, twf a -> t_max a a = a
}.

Section Base.
Context {TA : talg} {TL : tlaws TA}.

Lemma twfb_true : forall a : tV, t_wfb a = true <-> twf a.
Proof. intros a. reflexivity. Qed.

Lemma t_is_zero_zero : t_is_zero t_zero = true.
Proof. apply t_is_zero_spec. reflexivity. Qed.
Lemma t_is_one_one : t_is_one t_one = true.
Proof. apply t_is_one_spec. reflexivity. Qed.
Lemma t_is_zero_one : t_is_zero t_one = false.
Proof.
  destruct (t_is_zero t_one) eqn:E; [|reflexivity]. apply t_is_zero_spec in E.
  exfalso. apply t_zero_ne_one. symmetry. exact E.
Qed.
Lemma t_is_one_zero : t_is_one t_zero = false.
Proof.
  destruct (t_is_one t_zero) eqn:E; [|reflexivity]. apply t_is_one_spec in E.
  exfalso. apply t_zero_ne_one. exact E.
Qed.

Lemma code_inj : forall a b, t_code a = t_code b -> a = b.
Proof. intros a b E. rewrite <- (t_decode_code a), <- (t_decode_code b), E. reflexivity. Qed.

(** ** The invariant *)

Record MtOK (s : snap) : Prop := mkMtOK {
  mo_wf : WF s;
  mo_kind : s_kind s = KMtbdd;
  mo_vals : forall t c, term_val s t = Some c -> twf (t_decode c)
}.

Theorem mt_ok_b_spec : forall s, mt_ok_b s = true <-> MtOK s.
Proof.
  intros s. unfold mt_ok_b. rewrite !andb_true_iff, wf_b_spec, forallb_forall. split.
  - intros [[H Hk] Hv]. constructor; auto.
    + destruct (s_kind s); simpl in Hk; congruence.
    + intros t c E. apply assoc_N_In in E. specialize (Hv _ E). simpl in Hv.
      apply twfb_true. exact Hv.
  - intros B. pose proof (mo_wf s B) as H. split; [split|].
    + exact H.
    + rewrite (mo_kind s B). reflexivity.
    + intros [t c] Hin. simpl. apply twfb_true. apply (mo_vals s B t).
      apply In_assoc_N; [apply (wf_term_ids s H) | exact Hin].
Qed.

Lemma mt_kary : forall s, MtOK s -> kary (s_kind s).
Proof. intros s B. rewrite (mo_kind s B). split; discriminate. Qed.

Lemma mchoice_ok : forall s c, MtOK s -> (choice_ok s c <-> bchoice c).
Proof. intros s c B. unfold choice_ok, bchoice. rewrite (mo_kind s B). reflexivity. Qed.

Lemma mt_children : forall s id nd, MtOK s -> find_node s id = Some nd ->
  exists a b, nchildren nd = [a; b].
Proof.
  intros s id nd B E. pose proof (wf_arity s (mo_wf s B) id nd E) as L.
  rewrite (mo_kind s B) in L. simpl in L.
  destruct (nchildren nd) as [|a [|b [|x r]]]; simpl in L; try discriminate. eauto.
Qed.

(** ** Table extension with new nodes and new terminals *)

Record mext (s s' : snap) : Prop := mkMext {
  mx_kind : s_kind s' = s_kind s;
  mx_terms : forall t c, term_val s t = Some c -> term_val s' t = Some c;
  mx_v2l : s_v2l s' = s_v2l s;
  mx_l2v : s_l2v s' = s_l2v s;
  mx_handles : s_handles s' = s_handles s;
  mx_nodes : forall id nd, find_node s id = Some nd -> find_node s' id = Some nd
}.

Lemma mext_refl : forall s, mext s s.
Proof. intros s. constructor; auto. Qed.

Lemma mext_trans : forall s1 s2 s3, mext s1 s2 -> mext s2 s3 -> mext s1 s3.
Proof.
  intros s1 s2 s3 A B. constructor.
  - rewrite (mx_kind _ _ B). apply (mx_kind _ _ A).
  - intros t c E. apply (mx_terms _ _ B). apply (mx_terms _ _ A). exact E.
  - rewrite (mx_v2l _ _ B). apply (mx_v2l _ _ A).
  - rewrite (mx_l2v _ _ B). apply (mx_l2v _ _ A).
  - rewrite (mx_handles _ _ B). apply (mx_handles _ _ A).
  - intros id nd E. apply (mx_nodes _ _ B). apply (mx_nodes _ _ A). exact E.
Qed.

Lemma mext_of_extends : forall s s', extends s s' -> mext s s'.
Proof.
  intros s s' X. constructor; try apply X.
  intros t c E. rewrite (ext_term_val _ _ t X). exact E.
Qed.

Lemma mx_nlevels : forall s s', mext s s' -> nlevels s' = nlevels s.
Proof. intros s s' X. unfold nlevels. rewrite (mx_l2v _ _ X). reflexivity. Qed.

Lemma mx_ref_ok : forall s s' r, mext s s' -> ref_ok s r -> ref_ok s' r.
Proof.
  intros s s' [t|id] X; simpl.
  - intros [c E]. exists c. apply (mx_terms _ _ X). exact E.
  - intros [nd E]. exists nd. apply (mx_nodes _ _ X). exact E.
Qed.

Lemma mx_rlevel : forall s s' r, mext s s' -> ref_ok s r -> rlevel s' r = rlevel s r.
Proof.
  intros s s' [t|id] X; simpl.
  - intros _. apply mx_nlevels. exact X.
  - intros [nd E]. rewrite E, (mx_nodes _ _ X id nd E). reflexivity.
Qed.

(** every reference of [s] means in [s'] what it meant in [s], whatever the fuel *)
Lemma semk_mext : forall s s', WF s -> mext s s' ->
  forall f r c, ref_ok s r -> semk s' f r c = semk s f r c.
Proof.
  intros s s' H X. induction f as [|f IH]; intros r c Hok.
  - destruct r as [t|id]; [|reflexivity]. rewrite !semk_T. destruct Hok as [v E].
    rewrite E. apply (mx_terms _ _ X). exact E.
  - destruct r as [t|id].
    + rewrite !semk_T. destruct Hok as [v E]. rewrite E. apply (mx_terms _ _ X). exact E.
    + rewrite !semk_S. destruct Hok as [nd E]. rewrite E, (mx_nodes _ _ X id nd E).
      destruct (nth_error (nchildren nd) (c (nlevel nd))) as [e|] eqn:He; [|reflexivity].
      apply IH. apply (child_nth s H id nd _ e E He).
Qed.

(** [MtOK] survives the insertion of nodes *)
Lemma mtok_extends : forall s s', MtOK s -> extends s s' -> WF s' -> MtOK s'.
Proof.
  intros s s' B X H'. constructor.
  - exact H'.
  - rewrite (ext_kind _ _ X). apply (mo_kind s B).
  - intros t c. rewrite (ext_term_val _ _ t X). apply (mo_vals s B).
Qed.

(** ** Denotations *)

Definition mfun := (nat -> nat) -> tV.

Definition DenM (s : snap) (r : ref) (phi : mfun) : Prop :=
  ref_ok s r /\
  forall c, bchoice c -> semk s (S (nlevels s)) r c = Some (t_code (phi c)).

Lemma denm_ext : forall s r phi phi', DenM s r phi ->
  (forall c, bchoice c -> phi c = phi' c) -> DenM s r phi'.
Proof. intros s r phi phi' [A B] E. split; [exact A|]. intros c Hc. rewrite <- E by exact Hc. auto. Qed.

Lemma denm_unique : forall s r phi phi', DenM s r phi -> DenM s r phi' ->
  forall c, bchoice c -> phi c = phi' c.
Proof.
  intros s r phi phi' [_ A] [_ B] c Hc. apply code_inj.
  specialize (A c Hc). specialize (B c Hc). congruence.
Qed.

Lemma semk_is_term : forall s f r c v, semk s f r c = Some v -> exists t, term_val s t = Some v.
Proof.
  intros s. induction f as [|f IH]; intros r c v E.
  - destruct r as [t|id]; [rewrite semk_T in E; eauto | discriminate].
  - destruct r as [t|id]; [rewrite semk_T in E; eauto|].
    rewrite semk_S in E. destruct (find_node s id) as [nd|]; [|discriminate].
    destruct (nth_error (nchildren nd) (c (nlevel nd))) as [e|]; [|discriminate].
    eapply IH; eauto.
Qed.

(** the values of a denoted function are values of the Rust type *)
Lemma denm_wf : forall s r phi, MtOK s -> DenM s r phi -> forall c, bchoice c -> twf (phi c).
Proof.
  intros s r phi B [_ D] c Hc. destruct (semk_is_term s _ _ _ _ (D c Hc)) as [t E].
  rewrite <- (t_decode_code (phi c)). apply (mo_vals s B t _ E).
Qed.

Lemma denm_exists : forall s r, MtOK s -> ref_ok s r -> exists phi, DenM s r phi.
Proof.
  intros s r B Hok.
  exists (fun c => match semk s (S (nlevels s)) r c with Some n => t_decode n | None => t_nan end).
  split; [exact Hok|]. intros c Hc.
  pose proof (rlevel_le s (mo_wf s B) r).
  destruct (semk_total s (mo_wf s B) (S (nlevels s)) r c Hok (proj2 (mchoice_ok s c B) Hc) ltac:(lia))
    as [v Ev].
  rewrite Ev, t_code_decode. reflexivity.
Qed.

Lemma denm_mext : forall s s' r phi, MtOK s -> mext s s' -> DenM s r phi -> DenM s' r phi.
Proof.
  intros s s' r phi B X [A D]. split; [apply (mx_ref_ok _ _ _ X A)|].
  intros c Hc. rewrite (mx_nlevels _ _ X), (semk_mext s s' (mo_wf s B) X _ _ c A). auto.
Qed.

Lemma denm_extends : forall s s' r phi, MtOK s -> extends s s' -> DenM s r phi -> DenM s' r phi.
Proof. intros s s' r phi B X. apply denm_mext; [exact B | apply mext_of_extends; exact X]. Qed.

Lemma denm_term : forall s t v, term_val s t = Some (t_code v) -> DenM s (RT t) (fun _ => v).
Proof. intros s t v E. split; [exists (t_code v); exact E|]. intros c _. rewrite semk_T. exact E. Qed.

(** ** [mt_view] *)

Lemma mt_view_total : forall s r, ref_ok s r -> exists v, mt_view s r = Some v.
Proof. intros s [t|id] [x E]; simpl; rewrite E; eauto. Qed.

Lemma mt_view_MI : forall s r nd, mt_view s r = Some (MI nd) ->
  exists id, r = RN id /\ find_node s id = Some nd.
Proof.
  intros s [t|id] nd; simpl.
  - destruct (term_val s t); discriminate.
  - destruct (find_node s id) as [n|] eqn:E; [|discriminate]. intros Hx. inversion Hx; subst. eauto.
Qed.

Lemma mt_view_MT : forall s r v, mt_view s r = Some (MT v) ->
  exists t, r = RT t /\ term_val s t = Some (t_code v).
Proof.
  intros s [t|id] v; simpl.
  - destruct (term_val s t) as [c|] eqn:E; [|discriminate]. intros Hx. inversion Hx; subst.
    exists t. rewrite t_code_decode. auto.
  - destruct (find_node s id); discriminate.
Qed.

Lemma view_denm_T : forall s r v phi, DenM s r phi -> mt_view s r = Some (MT v) ->
  forall c, bchoice c -> phi c = v.
Proof.
  intros s r v phi [_ D] V c Hc. destruct (mt_view_MT s r v V) as [t [-> E]].
  specialize (D c Hc). rewrite semk_T, E in D. apply code_inj. congruence.
Qed.

(** ** Independence of the levels above a reference *)

Definition indepM (phi : mfun) (L : nat) : Prop :=
  forall c c', bchoice c -> bchoice c' -> (forall l, L <= l -> c l = c' l) -> phi c = phi c'.

Definition cofM (phi : mfun) (lvl i : nat) : mfun := fun c => phi (cupd c lvl i).

Lemma denm_indep : forall s r phi, WF s -> DenM s r phi -> indepM phi (rlevel s r).
Proof.
  intros s r phi H [_ D] c c' Hc Hc' E. apply code_inj.
  pose proof (D c Hc) as A. pose proof (D c' Hc') as A'.
  rewrite (semk_ext s H _ r c c' E) in A. congruence.
Qed.

Lemma indepM_mono : forall phi L L', indepM phi L -> L' <= L -> indepM phi L'.
Proof. intros phi L L' I Hle c c' Hc Hc' E. apply I; auto. intros l Hl. apply E. lia. Qed.

Lemma indepM_cof : forall phi L lvl i, indepM phi L -> lvl <= L -> i < 2 -> indepM (cofM phi lvl i) (S lvl).
Proof.
  intros phi L lvl i I Hle Hi c c' Hc Hc' E. unfold cofM.
  apply I; try (apply bchoice_upd; assumption).
  intros l Hl. unfold cupd. destruct (Nat.eqb_spec l lvl); [reflexivity|]. apply E. lia.
Qed.

(** a reference whose function ignores all levels below [L] sits at level [L]
    or deeper (a consequence of canonicity) *)
Lemma denm_level : forall s r phi L, MtOK s -> DenM s r phi -> L <= nlevels s ->
  indepM phi L -> L <= rlevel s r.
Proof.
  intros s r phi L B [Hok D] HL I.
  pose proof (mo_wf s B) as H. pose proof (mt_kary s B) as Hk.
  destruct (le_lt_dec L (rlevel s r)) as [Hle|Hlt]; [exact Hle|]. exfalso.
  destruct r as [t|id]; [simpl in Hlt; lia|].
  destruct Hok as [nd E]. rewrite (rlevel_node s id nd E) in Hlt.
  apply (reduced_kary s Hk _ (wf_reduced s H id nd E)).
  intros a b Ha Hb.
  destruct (In_nth_error _ _ Ha) as [i Hi]. destruct (In_nth_error _ _ Hb) as [j Hj].
  destruct (child_nth s H id nd i a E Hi) as [Oa La].
  destruct (child_nth s H id nd j b E Hj) as [Ob Lb].
  apply (child_edge_eq s id id nd nd a b H (proj1 Hk) E E Ha Hb).
  apply (canon_kary s H Hk _ _ Oa Ob). intros c Hc.
  apply (mchoice_ok s c B) in Hc.
  pose proof (child_index s H id nd i a E Hi) as Hi2.
  pose proof (child_index s H id nd j b E Hj) as Hj2.
  rewrite (mo_kind s B) in Hi2, Hj2. simpl in Hi2, Hj2.
  pose proof (child_sem s H id nd i a c E Hi) as Sa.
  pose proof (child_sem s H id nd j b c E Hj) as Sb.
  unfold semn in Sa, Sb. rewrite Sa, Sb.
  rewrite (D _ (bchoice_upd c (nlevel nd) i Hc Hi2)), (D _ (bchoice_upd c (nlevel nd) j Hc Hj2)).
  f_equal. f_equal. apply I; try (apply bchoice_upd; assumption).
  intros l Hl. unfold cupd. destruct (Nat.eqb_spec l (nlevel nd)); [lia | reflexivity].
Qed.

(** ** Shannon cofactors of a reference *)

Lemma denm_child : forall s id nd i e phi, MtOK s -> DenM s (RN id) phi ->
  find_node s id = Some nd -> nth_error (nchildren nd) i = Some e ->
  DenM s (eref e) (cofM phi (nlevel nd) i).
Proof.
  intros s id nd i e phi B [_ D] E He. pose proof (mo_wf s B) as H.
  split; [apply (child_nth s H id nd i e E He)|].
  intros c Hc. pose proof (child_sem s H id nd i e c E He) as S. unfold semn in S. rewrite S.
  pose proof (child_index s H id nd i e E He) as Hi. rewrite (mo_kind s B) in Hi. simpl in Hi.
  apply D. apply bchoice_upd; assumption.
Qed.

Lemma denm_skip : forall s r phi lvl i, WF s -> DenM s r phi -> lvl < rlevel s r -> i < 2 ->
  DenM s r (cofM phi lvl i).
Proof.
  intros s r phi lvl i H D Hl Hi. apply (denm_ext s r phi); [exact D|].
  intros c Hc. unfold cofM. apply (denm_indep s r phi H D); [exact Hc | apply bchoice_upd; auto|].
  intros l Hle. unfold cupd. destruct (Nat.eqb_spec l lvl); [lia | reflexivity].
Qed.

(** what [cof2] returns for a node at or below the split level *)
Lemma cof2_okM : forall s id nd phi lvl, MtOK s -> DenM s (RN id) phi ->
  find_node s id = Some nd -> lvl <= nlevel nd ->
  exists ft fe, cof2 (RN id) nd lvl = Some (ft, fe) /\
    DenM s ft (cofM phi lvl 0) /\ DenM s fe (cofM phi lvl 1) /\
    lvl < rlevel s ft /\ lvl < rlevel s fe.
Proof.
  intros s id nd phi lvl B D E Hle. pose proof (mo_wf s B) as H.
  unfold cof2. rewrite (wf_stored s H id nd E).
  destruct (Nat.eqb_spec (nlevel nd) lvl) as [Heq|Hne].
  - destruct (mt_children s id nd B E) as [a [b Ech]]. rewrite Ech.
    assert (Ha : nth_error (nchildren nd) 0 = Some a) by (rewrite Ech; reflexivity).
    assert (Hb : nth_error (nchildren nd) 1 = Some b) by (rewrite Ech; reflexivity).
    exists (eref a), (eref b). subst lvl.
    split; [reflexivity|].
    split; [apply (denm_child s id nd 0 a phi B D E Ha)|].
    split; [apply (denm_child s id nd 1 b phi B D E Hb)|].
    split; [apply (child_nth s H id nd 0 a E Ha) | apply (child_nth s H id nd 1 b E Hb)].
  - assert (Hl : lvl < rlevel s (RN id)) by (rewrite (rlevel_node s id nd E); lia).
    exists (RN id), (RN id). split; [reflexivity|].
    split; [apply denm_skip; auto|]. split; [apply denm_skip; auto|]. auto.
Qed.

(** the same for [mt_cof] (inner node or terminal) *)
Lemma mt_cof_ok : forall s r v phi lvl, MtOK s -> DenM s r phi -> mt_view s r = Some v ->
  lvl <= rlevel s r -> lvl < nlevels s ->
  exists ft fe, mt_cof r v lvl = Some (ft, fe) /\
    DenM s ft (cofM phi lvl 0) /\ DenM s fe (cofM phi lvl 1) /\
    lvl < rlevel s ft /\ lvl < rlevel s fe.
Proof.
  intros s r v phi lvl B D V Hle Hl. pose proof (mo_wf s B) as H. destruct v as [nd|x].
  - destruct (mt_view_MI s r nd V) as [id [-> E]]. simpl mt_cof.
    rewrite (rlevel_node s id nd E) in Hle. apply cof2_okM; assumption.
  - destruct (mt_view_MT s r x V) as [t [-> E]]. simpl mt_cof.
    exists (RT t), (RT t). split; [reflexivity|].
    split; [apply denm_skip; auto|]. split; [apply denm_skip; auto|]. simpl. auto.
Qed.

(** the level [olevel] reports is [rlevel] (terminals: below all levels) *)
Lemma olevel_rlevel : forall s r v, WF s -> mt_view s r = Some v ->
  match olevel v with
  | Some l => l = rlevel s r /\ l < nlevels s
  | None => rlevel s r = nlevels s
  end.
Proof.
  intros s r v H V. destruct v as [nd|x]; simpl.
  - destruct (mt_view_MI s r nd V) as [id [-> E]].
    rewrite (wf_stored s H id nd E), (rlevel_node s id nd E).
    split; [reflexivity | apply (wf_level s H id nd E)].
  - destruct (mt_view_MT s r x V) as [t [-> _]]. reflexivity.
Qed.

(** ** The node step shared by the algorithms *)

Lemma node_stepM : forall s lvl t e P0 P1 s' h, MtOK s -> lvl < nlevels s ->
  DenM s t P0 -> DenM s e P1 -> indepM P0 (S lvl) -> indepM P1 (S lvl) ->
  mk_node s lvl [E t; E e] = (s', h) ->
  MtOK s' /\ extends s s' /\
  DenM s' (eref h) (fun c => if Nat.eqb (c lvl) 0 then P0 c else P1 c).
Proof.
  intros s lvl t e P0 P1 s' h B Hl Dt De I0 I1 Hm.
  pose proof (mo_wf s B) as H. pose proof (mt_kary s B) as Hk.
  assert (Lt : S lvl <= rlevel s t) by (apply (denm_level s t P0); auto).
  assert (Le : S lvl <= rlevel s e) by (apply (denm_level s e P1); auto).
  assert (Hch : children_ok s lvl [E t; E e]).
  { split; [rewrite (mo_kind s B); reflexivity|].
    intros x [<-|[<-|[]]]; simpl; (split; [|split; [lia | reflexivity]]);
      [apply (proj1 Dt) | apply (proj1 De)]. }
  destruct (mk_node_wf s lvl _ s' h H Hk Hl Hch Hm) as [W [X [O [T [Sold [Sh _]]]]]].
  split; [apply (mtok_extends s s' B X W)|]. split; [exact X|].
  split; [exact O|]. intros c Hc.
  pose proof (Hc lvl) as Hc2.
  destruct (c lvl) as [|[|k]] eqn:Ec; [| |lia].
  - rewrite (Sh c 0 (E t) Ec eq_refl). simpl. apply (proj2 Dt c Hc).
  - rewrite (Sh c 1 (E e) Ec eq_refl). simpl. apply (proj2 De c Hc).
Qed.

(** recombining the two cofactor results *)
Lemma shannon_pickM : forall (c : nat -> nat) lvl (G : nat -> tV), bchoice c ->
  (if Nat.eqb (c lvl) 0 then G 0 else G 1) = G (c lvl).
Proof.
  intros c lvl G Hc. pose proof (Hc lvl). destruct (c lvl) as [|[|k]]; [reflexivity | reflexivity | lia].
Qed.

(** ** Canonicity inside one table *)

Lemma denm_canon : forall s r1 r2 phi, MtOK s -> DenM s r1 phi -> DenM s r2 phi -> r1 = r2.
Proof.
  intros s r1 r2 phi B [O1 D1] [O2 D2].
  apply (canon_kary s (mo_wf s B) (mt_kary s B) r1 r2 O1 O2).
  intros c Hc. apply (mchoice_ok s c B) in Hc. rewrite (D1 c Hc), (D2 c Hc). reflexivity.
Qed.

(** the cofactor of an existing function w.r.t. a level at or above its root exists *)
Lemma denm_cof_exists : forall s r Phi lvl i, MtOK s -> DenM s r Phi ->
  lvl <= rlevel s r -> lvl < nlevels s -> i < 2 -> exists r', DenM s r' (cofM Phi lvl i).
Proof.
  intros s r Phi lvl i B D Hle Hl Hi. pose proof (mo_wf s B) as H.
  destruct r as [t|id].
  - exists (RT t). apply denm_skip; auto.
  - destruct (proj1 D) as [nd En]. rewrite (rlevel_node s id nd En) in Hle.
    destruct (cof2_okM s id nd Phi lvl B D En Hle) as [ft [fe [_ [D0 [D1 _]]]]].
    destruct i as [|[|k]]; [exists ft; exact D0 | exists fe; exact D1 | lia].
Qed.

(** if the function to be built already has a reference, [mk_node] returns it
    and leaves the table alone *)
Lemma mk_node_stableM : forall s lvl t e P0 P1 s' h r0, MtOK s -> lvl < nlevels s ->
  DenM s t P0 -> DenM s e P1 -> indepM P0 (S lvl) -> indepM P1 (S lvl) ->
  mk_node s lvl [E t; E e] = (s', h) ->
  DenM s r0 (fun c => if Nat.eqb (c lvl) 0 then P0 c else P1 c) ->
  s' = s /\ eref h = r0.
Proof.
  intros s lvl t e P0 P1 s' h r0 B Hl Dt De I0 I1 Hm D0.
  destruct (node_stepM s lvl t e P0 P1 s' h B Hl Dt De I0 I1 Hm) as [B' [X Dh]].
  assert (Eh : eref h = r0) by (apply (denm_canon s' _ _ _ B' Dh (denm_extends s s' _ _ B X D0))).
  split; [|exact Eh].
  unfold mk_node in Hm. destruct (all_equal [E t; E e]); [inversion Hm; reflexivity|].
  unfold get_or_insert in Hm. destruct (find_dup s lvl [E t; E e]); inversion Hm; [reflexivity|].
  exfalso. subst h. simpl in Eh. subst r0. destruct (proj1 D0) as [nd En].
  rewrite fresh_id_free in En. discriminate.
Qed.

(** ** [get_terminal]: hash-consing of terminal values *)

Lemma rassoc_N_none : forall l v, rassoc_N l v = None -> ~ In v (map snd l).
Proof.
  induction l as [|[a b] r IH]; intros v E Hin; [destruct Hin|]. simpl in E, Hin.
  destruct (N.eqb_spec b v) as [->|Hne]; [discriminate|].
  destruct Hin as [Hin|Hin]; [contradiction | apply (IH v E Hin)].
Qed.

Lemma max_term_ge : forall (l : list (N * N)) m,
  (m <= fold_left (fun m (p : N * N) => N.max m (fst p)) l m)%N /\
  forall p, In p l -> (fst p <= fold_left (fun m (p : N * N) => N.max m (fst p)) l m)%N.
Proof.
  induction l as [|x l IH]; intros m; simpl.
  - split; [lia | intros p []].
  - destruct (IH (N.max m (fst x))) as [A B]. split; [lia|].
    intros p [<-|Hp]; [lia | auto].
Qed.

Lemma fresh_term_free : forall s, term_val s (fresh_term s) = None.
Proof.
  intros s. destruct (term_val s (fresh_term s)) as [c|] eqn:E; [|reflexivity].
  exfalso. apply assoc_N_In in E.
  destruct (max_term_ge (s_terms s) 0%N) as [_ B]. specialize (B _ E). simpl in B.
  unfold fresh_term, max_term in B. lia.
Qed.

(** adding a terminal with a fresh id and a fresh value *)
Section AddTerm.
Variable s : snap.
Variable t c : N.
Hypothesis B : MtOK s.
Hypothesis Hfree : term_val s t = None.
Hypothesis Hnew : ~ In c (map snd (s_terms s)).
Hypothesis Hwf : twf (t_decode c).

Let s' := set_terms s ((t, c) :: s_terms s).

Lemma addt_term_val : forall k, term_val s' k = if N.eqb t k then Some c else term_val s k.
Proof. intros k. reflexivity. Qed.

Lemma addt_mext : mext s s'.
Proof.
  constructor; try reflexivity; [|auto].
  intros k v E. rewrite addt_term_val. destruct (N.eqb_spec t k) as [->|Hne]; [congruence | exact E].
Qed.

Lemma addt_ref_ok : forall r, ref_ok s r -> ref_ok s' r.
Proof. intros r. apply mx_ref_ok. apply addt_mext. Qed.

Lemma addt_rlevel : forall r, rlevel s' r = rlevel s r.
Proof. intros [k|id]; reflexivity. Qed.

Lemma addt_wf : WF s'.
Proof.
  pose proof (mo_wf s B) as H. pose proof (mt_kary s B) as Hk.
  constructor.
  - apply (wf_perm_len s H).
  - apply (wf_perm_v2l s H).
  - apply (wf_perm_l2v s H).
  - intros id nd E. apply (wf_arity s H id nd E).
  - intros id nd E. apply (wf_stored s H id nd E).
  - intros id nd E. apply (wf_level s H id nd E).
  - intros id nd e E Hin. destruct (wf_child s H id nd e E Hin) as [A L].
    split; [apply addt_ref_ok; exact A | rewrite addt_rlevel; exact L].
  - intros id nd E. apply (reduced_kary_iff s' (nchildren nd) Hk).
    apply (reduced_kary_iff s (nchildren nd) Hk). apply (wf_reduced s H id nd E).
  - intros Hb id nd e E Hin. apply (wf_tags s H Hb id nd e E Hin).
  - intros id1 id2 n1 n2 E1 E2. apply (wf_unique s H id1 id2 n1 n2 E1 E2).
  - simpl. constructor; [|apply (wf_term_ids s H)].
    intros Hin. apply in_map_iff in Hin. destruct Hin as [[k v] [Ek Hin]]. simpl in Ek. subst k.
    pose proof Hfree as F. unfold term_val in F.
    rewrite (In_assoc_N (s_terms s) t v (wf_term_ids s H) Hin) in F. discriminate.
  - simpl. constructor; [exact Hnew | apply (wf_term_vals s H)].
  - intros h Hin. destruct (wf_handles s H h Hin) as [A T].
    split; [apply addt_ref_ok; exact A | exact T].
Qed.

Lemma addt_ok : MtOK s'.
Proof.
  constructor; [apply addt_wf | apply (mo_kind s B)|].
  intros k v. rewrite addt_term_val. destruct (N.eqb_spec t k) as [->|Hne].
  - intros E. inversion E; subst. exact Hwf.
  - apply (mo_vals s B).
Qed.

End AddTerm.

(** a reference that denotes a constant is the terminal with that value *)
Lemma denm_const_term : forall s r v, MtOK s -> DenM s r (fun _ => v) ->
  exists t, r = RT t /\ term_val s t = Some (t_code v).
Proof.
  intros s r v B D. pose proof (mo_wf s B) as H.
  assert (L : nlevels s <= rlevel s r).
  { apply (denm_level s r _ (nlevels s) B D (le_n _)). intros c c' _ _ _. reflexivity. }
  destruct r as [t|id].
  - exists t. split; [reflexivity|].
    pose proof (proj2 D (fun _ => 0) ltac:(intros l; lia)) as E. rewrite semk_T in E. exact E.
  - exfalso. destruct (proj1 D) as [nd E]. rewrite (rlevel_node s id nd E) in L.
    pose proof (wf_level s H id nd E). lia.
Qed.

Theorem get_terminal_ok : forall s v s' r, MtOK s -> twf v -> get_terminal s v = (s', r) ->
  MtOK s' /\ mext s s' /\ DenM s' r (fun _ => v) /\
  (forall r0, DenM s r0 (fun _ => v) -> s' = s /\ r = r0).
Proof.
  intros s v s' r B Hv. pose proof (mo_wf s B) as H. unfold get_terminal.
  destruct (rassoc_N (s_terms s) (t_code v)) as [t|] eqn:Er; intros Heq; inversion Heq; subst s' r; clear Heq.
  - assert (Et : term_val s t = Some (t_code v)).
    { apply rassoc_N_In in Er. apply In_assoc_N; [apply (wf_term_ids s H) | exact Er]. }
    split; [exact B|]. split; [apply mext_refl|]. split; [apply denm_term; exact Et|].
    intros r0 D0. split; [reflexivity|].
    destruct (denm_const_term s r0 v B D0) as [t0 [-> E0]].
    f_equal. apply (term_val_inj s t t0 (t_code v) H Et E0).
  - pose proof (rassoc_N_none _ _ Er) as Hnew.
    assert (Hwf : twf (t_decode (t_code v))) by (rewrite t_decode_code; exact Hv).
    pose proof (fresh_term_free s) as Hfree.
    split; [apply (addt_ok s (fresh_term s) (t_code v) B Hfree Hnew Hwf)|].
    split; [apply (addt_mext s (fresh_term s) (t_code v) Hfree)|].
    split.
    + apply denm_term. rewrite addt_term_val, N.eqb_refl. reflexivity.
    + intros r0 D0. exfalso.
      destruct (denm_const_term s r0 v B D0) as [t0 [-> E0]].
      apply Hnew. apply assoc_N_In in E0. apply (in_map snd) in E0. exact E0.
Qed.

(** [get_terminal] never fails to deliver a value that is already there *)
Lemma get_terminal_existing : forall s v t, WF s -> term_val s t = Some (t_code v) ->
  get_terminal s v = (s, RT t).
Proof.
  intros s v t H E. unfold get_terminal.
  pose proof (assoc_N_In _ _ _ E) as Hin.
  destruct (rassoc_N_total _ _ _ Hin) as [t' Et]. rewrite Et.
  pose proof (rassoc_N_In _ _ _ Et) as Hin'.
  rewrite (nodup_snd_inj (s_terms s) t' t (t_code v) (wf_term_vals s H) Hin' Hin). reflexivity.
Qed.

End Base.
