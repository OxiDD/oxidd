(** * Correctness of the MTBDD if-then-else (generic, DD/MtG.v: [mt_apply_ite] =
      [apply_ite] of oxidd-rules-mtbdd/src/apply_rec.rs)

    [mt_apply_ite_ok]: the result denotes
    [fun c => if is_zero (phi c) then theta c else psi c] - for a 0-1-valued
    condition [phi] this is "psi where phi = 1, theta where phi = 0"
    ([mt_apply_ite_select]); the table is only extended, [MtOK]/[MCacheOK] are
    preserved, an existing reference of the result function is returned
    unchanged. *)

From Coq Require Import List NArith ZArith PArith Bool Arith Lia FMapPositive.
From OxiVerif Require Import DD.Table DD.TableProofs DD.Canon DD.Sem DD.Build DD.BuildProofs
  DD.Apply DD.ApplyProofs DD.MtG DD.MtGBase DD.MtGProofs.
Import ListNotations.

Section IG.
Context {TA : talg} {TL : tlaws TA}.

Section IteSec.
Variable gt : ref -> ref -> bool.
Variable C : Type.
Variable cget : C -> N -> list ref -> option ref.
Variable cadd : C -> N -> list ref -> ref -> C.
Hypothesis Hlossy : lossy cget cadd.

Lemma mt_apply_ite_S : forall n s c f g h,
  mt_apply_ite C cget cadd (S n) s c f g h =
    if ref_eqb g h then Some (s, c, g)
    else
      match mt_view s f with
      | None => None
      | Some (MT t) => Some (s, c, if t_is_zero t then h else g)
      | Some (MI fnode) =>
        match cget c mcode_ite [f; g; h] with
        | Some r => Some (s, c, r)
        | None =>
          match mt_view s g, mt_view s h with
          | Some vg, Some vh =>
            match omin (omin (Some (nstored fnode)) (olevel vg)) (olevel vh) with
            | None => None
            | Some lvl =>
              match cof2 f fnode lvl, mt_cof g vg lvl, mt_cof h vh lvl with
              | Some (ft, fe), Some (gt', ge), Some (ht, he) =>
                match mt_apply_ite C cget cadd n s c ft gt' ht with
                | None => None
                | Some (s1, c1, t) =>
                  match mt_apply_ite C cget cadd n s1 c1 fe ge he with
                  | None => None
                  | Some (s2, c2, e) =>
                    let '(s3, r) := mk_node s2 lvl [E t; E e] in
                    Some (s3, cadd c2 mcode_ite [f; g; h] (eref r), eref r)
                  end
                end
              | _, _, _ => None
              end
            end
          | _, _ => None
          end
        end
      end.
Proof. reflexivity. Qed.

(** the split level of three operands the first of which is an inner node *)
Lemma omin3_level : forall s idf fnode g h vg vh, WF s ->
  find_node s idf = Some fnode -> mt_view s g = Some vg -> mt_view s h = Some vh ->
  omin (omin (Some (nstored fnode)) (olevel vg)) (olevel vh)
  = Some (Nat.min (Nat.min (nlevel fnode) (rlevel s g)) (rlevel s h)).
Proof.
  intros s idf fnode g h vg vh H Ef Vg Vh.
  pose proof (olevel_rlevel s g vg H Vg) as Lg. pose proof (olevel_rlevel s h vh H Vh) as Lh.
  pose proof (wf_level s H idf fnode Ef) as Hlf.
  rewrite (wf_stored s H idf fnode Ef).
  destruct (olevel vg) as [lg|], (olevel vh) as [lh|]; simpl.
  - destruct Lg as [-> ?], Lh as [-> ?]. reflexivity.
  - destruct Lg as [-> ?]. rewrite Lh. f_equal. lia.
  - destruct Lh as [-> ?]. rewrite Lg. f_equal. lia.
  - rewrite Lg, Lh. f_equal. lia.
Qed.

Theorem mt_apply_ite_ok : forall fuel s c f g h phi psi theta,
  MtOK s -> MCacheOK cget s c -> DenM s f phi -> DenM s g psi -> DenM s h theta ->
  nlevels s - Nat.min (Nat.min (rlevel s f) (rlevel s g)) (rlevel s h) < fuel ->
  mresult_ok C cget s c (mt_apply_ite C cget cadd fuel s c f g h)
             (fun c0 => if t_is_zero (phi c0) then theta c0 else psi c0).
Proof.
  induction fuel as [|n IH]; intros s c f g h phi psi theta B O Df Dg Dh Hfuel; [lia|].
  pose proof (mo_wf s B) as H.
  rewrite mt_apply_ite_S.
  destruct (ref_eqb g h) eqn:Egh.
  { apply ref_eqb_eq in Egh. subst h.
    pose proof (denm_unique s g psi theta Dg Dh) as U.
    apply mresult_ok_here; auto. apply (denm_ext s g psi); [exact Dg|].
    intros c0 Hc. rewrite <- (U c0 Hc). destruct (t_is_zero (phi c0)); reflexivity. }
  destruct (mt_view_total s f (proj1 Df)) as [vf Vf]. rewrite Vf.
  destruct vf as [fnode|tv].
  2:{ pose proof (view_denm_T s f tv phi Df Vf) as U.
      apply mresult_ok_here; auto. destruct (t_is_zero tv) eqn:Ez.
      - apply (denm_ext s h theta); [exact Dh|]. intros c0 Hc. rewrite (U c0 Hc), Ez. reflexivity.
      - apply (denm_ext s g psi); [exact Dg|]. intros c0 Hc. rewrite (U c0 Hc), Ez. reflexivity. }
  destruct (mt_view_MI s f fnode Vf) as [idf [-> Ef]].
  destruct (cget c mcode_ite [RN idf; g; h]) as [r|] eqn:Ec.
  { destruct (O _ _ _ Ec eq_refl) as [pa [pb [pc [Da [Db [Dc Dr]]]]]].
    apply mresult_ok_here; auto. apply (denm_ext s r _ _ Dr). intros c0 Hc.
    rewrite (denm_unique s _ pa phi Da Df c0 Hc), (denm_unique s _ pb psi Db Dg c0 Hc),
            (denm_unique s _ pc theta Dc Dh c0 Hc). reflexivity. }
  destruct (mt_view_total s g (proj1 Dg)) as [vg Vg]. destruct (mt_view_total s h (proj1 Dh)) as [vh Vh].
  rewrite Vg, Vh.
  rewrite (omin3_level s idf fnode g h vg vh H Ef Vg Vh).
  rewrite (rlevel_node s idf fnode Ef) in Hfuel.
  pose proof (wf_level s H idf fnode Ef) as Hlf.
  pose proof (rlevel_le s H g) as Hlg. pose proof (rlevel_le s H h) as Hlh.
  set (lvl := Nat.min (Nat.min (nlevel fnode) (rlevel s g)) (rlevel s h)) in *.
  assert (Hlvl : lvl < nlevels s) by lia.
  destruct (cof2_okM s idf fnode phi lvl B Df Ef ltac:(lia)) as [ft [fe [Ecf [Dft [Dfe [Lft Lfe]]]]]].
  destruct (mt_cof_ok s g vg psi lvl B Dg Vg ltac:(lia) Hlvl) as [gt' [ge [Ecg [Dgt [Dge [Lgt Lge]]]]]].
  destruct (mt_cof_ok s h vh theta lvl B Dh Vh ltac:(lia) Hlvl) as [ht [he [Ech [Dht [Dhe [Lht Lhe]]]]]].
  rewrite Ecf, Ecg, Ech.
  assert (Ip : indepM phi (nlevel fnode))
    by (rewrite <- (rlevel_node s idf fnode Ef); apply (denm_indep s _ phi H Df)).
  assert (Iq : indepM psi (rlevel s g)) by (apply (denm_indep s _ psi H Dg)).
  assert (Ir : indepM theta (rlevel s h)) by (apply (denm_indep s _ theta H Dh)).
  apply (mresult_ok_node C cget cadd Hlossy s c (fun c0 => if t_is_zero (phi c0) then theta c0 else psi c0)
           lvl mcode_ite [RN idf; g; h] _ (fun s1 c1 => mt_apply_ite C cget cadd n s1 c1 fe ge he) B Hlvl).
  - intros x y Hx Hy Exy.
    rewrite (indepM_mono phi _ lvl Ip ltac:(lia) x y Hx Hy Exy).
    rewrite (indepM_mono psi _ lvl Iq ltac:(lia) x y Hx Hy Exy).
    rewrite (indepM_mono theta _ lvl Ir ltac:(lia) x y Hx Hy Exy). reflexivity.
  - apply (IH s c ft gt' ht _ _ _ B O Dft Dgt Dht). lia.
  - intros s1 c1 B1 X1 O1.
    apply (IH s1 c1 fe ge he _ _ _ B1 O1 (denm_mext s s1 _ _ B X1 Dfe) (denm_mext s s1 _ _ B X1 Dge)
             (denm_mext s s1 _ _ B X1 Dhe)).
    rewrite (mx_nlevels _ _ X1), (mx_rlevel _ _ _ X1 (proj1 Dfe)),
            (mx_rlevel _ _ _ X1 (proj1 Dge)), (mx_rlevel _ _ _ X1 (proj1 Dhe)). lia.
  - intros s3 r X03 Dres _. exists phi, psi, theta.
    split; [apply (denm_mext s s3 _ _ B X03 Df)|].
    split; [apply (denm_mext s s3 _ _ B X03 Dg)|].
    split; [apply (denm_mext s s3 _ _ B X03 Dh) | exact Dres].
Qed.

(** the property's reading: where the condition is 0 the else-operand is
    selected, elsewhere (in particular where it is 1) the then-operand; no
    assumption on the condition is needed for this model of the release build
    (the code [debug_assert!]s that a terminal condition other than 0 is 1) *)
Theorem mt_apply_ite_select : forall fuel s c f g h phi psi theta,
  MtOK s -> MCacheOK cget s c -> DenM s f phi -> DenM s g psi -> DenM s h theta ->
  nlevels s - Nat.min (Nat.min (rlevel s f) (rlevel s g)) (rlevel s h) < fuel ->
  exists s' c' r, mt_apply_ite C cget cadd fuel s c f g h = Some (s', c', r) /\
    MtOK s' /\ mext s s' /\ MCacheOK cget s' c' /\
    exists rho, DenM s' r rho /\
      forall c0, bchoice c0 ->
        (phi c0 = t_one -> rho c0 = psi c0) /\ (phi c0 = t_zero -> rho c0 = theta c0) /\
        (phi c0 <> t_zero -> rho c0 = psi c0).
Proof.
  intros fuel s c f g h phi psi theta B O Df Dg Dh Hfuel.
  destruct (mt_apply_ite_ok fuel s c f g h phi psi theta B O Df Dg Dh Hfuel)
    as [s' [c' [r [E [B' [X [O' [D _]]]]]]]].
  exists s', c', r. repeat (split; [assumption|]).
  eexists. split; [exact D|]. intros c0 Hc. cbv beta.
  split; [intros ->; rewrite t_is_zero_one; reflexivity|].
  split; [intros ->; rewrite t_is_zero_zero; reflexivity|].
  intros Hnz. destruct (t_is_zero (phi c0)) eqn:Ez; [|reflexivity].
  apply t_is_zero_spec in Ez. contradiction.
Qed.

End IteSec.

End IG.
