(** * Correctness of the MTBDD apply algorithm for binary operators
      (generic in the terminal type, DD/MtG.v: [mt_tb] = [terminal_bin], [mt_apply_bin] = [apply_bin])

    - [mt_tb_sound]: every arm of [terminal_bin] is discharged from a scalar
      law of the class [tlaws] (DD/MtGBase.v): a finished result denotes the pointwise
      operation, the normalised triple (operator, a, b) has the operator that
      was asked for and either the operands as given or - only for an operator
      that was proved commutative - swapped;
    - [Cube], [ovr]: what [restrict]'s second operand has to be, and the
      assignment override it stands for;
    - [MCacheOK]: every entry a cache can serve is semantically correct: the
      key (operator code, operands) determines the pointwise meaning of the
      memoised value;
    - [mt_apply_bin_ok]: with fuel [S (nlevels s)] the algorithm returns
      (never [None]) a well-formed extension of the table, a correct cache and
      a reference denoting [fun c => op (phi c) (psi c)], for every cache that
      only ever serves what was added ([lossy]); if that function already has
      a reference, this reference is returned and the table is unchanged. *)

From Coq Require Import List NArith ZArith PArith Bool Arith Lia FMapPositive.
From OxiVerif Require Import DD.Table DD.TableProofs DD.Canon DD.Sem DD.Build DD.BuildProofs
  DD.Apply DD.ApplyProofs DD.MtG DD.MtGBase.
Import ListNotations.

Section PG.
Context {TA : talg} {TL : tlaws TA}.

(** ** Cubes *)

(** [r] is a product of literals: a chain of nodes (level, rest, 0) (positive
    literal [x]) or (level, 0, rest) (negative literal [1 - x]) that ends in
    the terminal 1.  [lits] = the literals as (level, polarity), top-down. *)
Inductive Cube (s : snap) : ref -> list (nat * bool) -> Prop :=
| CubeOne : forall t, term_val s t = Some (t_code t_one) -> Cube s (RT t) []
| CubePos : forall id nd rest t0 lits,
    find_node s id = Some nd -> nchildren nd = [E rest; E (RT t0)] ->
    term_val s t0 = Some (t_code t_zero) -> Cube s rest lits ->
    Cube s (RN id) ((nlevel nd, true) :: lits)
| CubeNeg : forall id nd rest t0 lits,
    find_node s id = Some nd -> nchildren nd = [E (RT t0); E rest] ->
    term_val s t0 = Some (t_code t_zero) -> Cube s rest lits ->
    Cube s (RN id) ((nlevel nd, false) :: lits).

(** the choice [c] with the levels of the literals forced (child 0 = the
    level's variable is true) *)
Definition ovr (lits : list (nat * bool)) (c : nat -> nat) : nat -> nat :=
  fun l => match assoc_nat lits l with
           | Some b => if b then 0 else 1
           | None => c l
           end.

Lemma ovr_bchoice : forall lits c, bchoice c -> bchoice (ovr lits c).
Proof.
  intros lits c Hc l. unfold ovr. destruct (assoc_nat lits l) as [[]|]; [lia | lia | apply Hc].
Qed.

Lemma cube_mext : forall s s' r lits, mext s s' -> Cube s r lits -> Cube s' r lits.
Proof.
  intros s s' r lits X Hc. induction Hc.
  - apply CubeOne. apply (mx_terms _ _ X). assumption.
  - eapply CubePos; eauto; [apply (mx_nodes _ _ X); assumption | apply (mx_terms _ _ X); assumption].
  - eapply CubeNeg; eauto; [apply (mx_nodes _ _ X); assumption | apply (mx_terms _ _ X); assumption].
Qed.

Lemma code_zero_one : t_code t_zero <> t_code t_one.
Proof. intros E. apply code_inj in E. apply t_zero_ne_one. exact E. Qed.

Lemma cube_not_zero : forall s t lits, Cube s (RT t) lits -> term_val s t <> Some (t_code t_zero).
Proof. intros s t lits Hc E. inversion Hc; subst. apply code_zero_one. congruence. Qed.

(** the literal list of a cube is determined by the reference *)
Lemma cube_fun : forall s r l1 l2, Cube s r l1 -> Cube s r l2 -> l1 = l2.
Proof.
  intros s r l1 l2 H1. revert l2.
  induction H1 as [t Et | id nd rest t0 lits En Ech Et Hr IH | id nd rest t0 lits En Ech Et Hr IH];
    intros l2 H2;
    inversion H2 as [| i' nd' rest' t0' lits' En' Ech' Et' Hr' | i' nd' rest' t0' lits' En' Ech' Et' Hr'];
    subst; try reflexivity;
    rewrite En in En'; inversion En'; subst nd'; rewrite Ech in Ech'; inversion Ech'; subst.
  - f_equal. apply IH. assumption.
  - exfalso. apply (cube_not_zero s _ _ Hr Et').
  - exfalso. apply (cube_not_zero s _ _ Hr Et').
  - f_equal. apply IH. assumption.
Qed.

(** ** Every arm of [terminal_bin] *)

(** a finished result: the table is only extended, the result denotes [Phi],
    and if [Phi] already had a reference nothing was created *)
Definition tb_done_ok (s s' : snap) (r : ref) (Phi : mfun) : Prop :=
  MtOK s' /\ mext s s' /\ DenM s' r Phi /\
  (forall r0, DenM s r0 Phi -> s' = s /\ r = r0).

Lemma done_here : forall s r Phi, MtOK s -> DenM s r Phi -> tb_done_ok s s r Phi.
Proof.
  intros s r Phi B D. split; [exact B|]. split; [apply mext_refl|]. split; [exact D|].
  intros r0 D0. split; [reflexivity | apply (denm_canon s r r0 Phi B D D0)].
Qed.

Lemma done_val_ok : forall s v (Phi : mfun) (Q : mop -> ref -> ref -> Prop),
  MtOK s -> twf v -> (forall c, bchoice c -> Phi c = v) ->
  match done_val s v with
  | MDone s' r => tb_done_ok s s' r Phi
  | MBin o a b => Q o a b
  end.
Proof.
  intros s v Phi Q B Hv HP. unfold done_val. destruct (get_terminal s v) as [s' r] eqn:Eg.
  destruct (get_terminal_ok s v s' r B Hv Eg) as [B' [X [D S]]].
  split; [exact B'|]. split; [exact X|].
  split; [apply (denm_ext s' r _ _ D); intros c Hc; symmetry; apply HP; exact Hc|].
  intros r0 D0. apply S. apply (denm_ext s r0 _ _ D0). exact HP.
Qed.

Lemma mop_code_inj : forall o o', mop_code o = mop_code o' -> o = o'.
Proof. intros [] [] E; simpl in E; try discriminate; reflexivity. Qed.

Lemma mop_eval_nan : forall op (t x : tV), t_is_nan t = true -> twf x ->
  mop_eval op t x = t_nan /\ mop_eval op x t = t_nan.
Proof. intros op t x Ht Hx. pose proof (t_nan_absorbing t x Ht Hx) as L. destruct op; simpl; tauto. Qed.

(** the operators whose operands [terminal_bin] may swap *)
Definition mop_comm (o : mop) : Prop :=
  forall x y : tV, twf x -> twf y -> mop_eval o x y = mop_eval o y x.

Section TB.
Variable gt : ref -> ref -> bool.

Definition tb_post (s : snap) (op : mop) (f g : ref) (vf vg : mview) (phi psi : mfun)
    (res : mtb_res) : Prop :=
  match res with
  | MDone s' r => tb_done_ok s s' r (fun c => mop_eval op (phi c) (psi c))
  | MBin o a b =>
    o = op /\ ((exists nd, vf = MI nd) \/ (exists nd, vg = MI nd)) /\
    ((a = f /\ b = g) \/ (a = g /\ b = f /\ mop_comm op))
  end.

Lemma tb_post_swap : forall s op f g vf vg phi psi,
  ((exists nd, vf = MI nd) \/ (exists nd, vg = MI nd)) -> mop_comm op ->
  tb_post s op f g vf vg phi psi (if gt f g then MBin op g f else MBin op f g).
Proof.
  intros s op f g vf vg phi psi Hi Hc. destruct (gt f g); simpl.
  - split; [reflexivity|]. split; [exact Hi|]. right. auto.
  - split; [reflexivity|]. split; [exact Hi|]. left. auto.
Qed.

Lemma tb_post_keep : forall s op f g vf vg phi psi,
  ((exists nd, vf = MI nd) \/ (exists nd, vg = MI nd)) ->
  tb_post s op f g vf vg phi psi (MBin op f g).
Proof. intros. simpl. split; [reflexivity|]. split; [assumption|]. left. auto. Qed.

Lemma mview_pair : forall vf vg : mview,
  (exists a b, vf = MT a /\ vg = MT b) \/
  (((exists nd, vf = MI nd) \/ (exists nd, vg = MI nd)) /\
   forall (T : Type) (x : tV -> tV -> T) (y : T),
     match vf with MI _ => y | MT a => match vg with MI _ => y | MT b => x a b end end = y).
Proof.
  intros [nf|a] [ng|b]; [right | right | right | left; eauto]; (split; [eauto | reflexivity]).
Qed.

Lemma is_t_true : forall p v, is_t p v = true -> exists a, v = MT a /\ p a = true.
Proof. intros p [nd|a] E; [discriminate | eauto]. Qed.

Theorem mt_tb_sound : forall s op f g vf vg phi psi, MtOK s ->
  DenM s f phi -> DenM s g psi -> mt_view s f = Some vf -> mt_view s g = Some vg ->
  tb_post s op f g vf vg phi psi (mt_tb gt s op f g vf vg).
Proof.
  intros s op f g vf vg phi psi B Df Dg Vf Vg.
  assert (Ff : forall a, vf = MT a -> forall c, bchoice c -> phi c = a)
    by (intros a -> c Hc; apply (view_denm_T s f a phi Df Vf c Hc)).
  assert (Fg : forall a, vg = MT a -> forall c, bchoice c -> psi c = a)
    by (intros a -> c Hc; apply (view_denm_T s g a psi Dg Vg c Hc)).
  pose proof (denm_wf s f phi B Df) as Wf. pose proof (denm_wf s g psi B Dg) as Wg.
  assert (Wa : forall a, vf = MT a -> twf a).
  { intros a ->. destruct (mt_view_MT s f a Vf) as [t [_ E]].
    rewrite <- (t_decode_code a). apply (mo_vals s B t _ E). }
  assert (Wb : forall a, vg = MT a -> twf a).
  { intros a ->. destruct (mt_view_MT s g a Vg) as [t [_ E]].
    rewrite <- (t_decode_code a). apply (mo_vals s B t _ E). }
  assert (RF : forall law : (forall c, bchoice c -> mop_eval op (phi c) (psi c) = phi c),
             tb_post s op f g vf vg phi psi (MDone s f)).
  { intros law. apply done_here; [exact B|]. apply (denm_ext s f phi _ Df).
    intros c Hc. symmetry. apply law. exact Hc. }
  assert (RG : forall law : (forall c, bchoice c -> mop_eval op (phi c) (psi c) = psi c),
             tb_post s op f g vf vg phi psi (MDone s g)).
  { intros law. apply done_here; [exact B|]. apply (denm_ext s g psi _ Dg).
    intros c Hc. symmetry. apply law. exact Hc. }
  assert (RV : forall v, twf v -> (forall c, bchoice c -> mop_eval op (phi c) (psi c) = v) ->
             tb_post s op f g vf vg phi psi (done_val s v)).
  { intros v Hv law. unfold tb_post.
    apply (done_val_ok s v (fun c => mop_eval op (phi c) (psi c))); auto. }
  assert (SC : forall a b, vf = MT a -> vg = MT b -> twf (mop_eval op a b) ->
             tb_post s op f g vf vg phi psi (done_val s (mop_eval op a b))).
  { intros a b Ea Eb W. apply RV; [exact W|].
    intros c Hc. rewrite (Ff a Ea c Hc), (Fg b Eb c Hc). reflexivity. }
  assert (UL : forall p, is_t p vf = true ->
             (forall a x : tV, p a = true -> twf x -> mop_eval op a x = x) ->
             tb_post s op f g vf vg phi psi (MDone s g)).
  { intros p E law. apply is_t_true in E. destruct E as (a & Ea & Ep).
    apply RG. intros c Hc. rewrite (Ff a Ea c Hc). apply law; auto. }
  assert (UR : forall p, is_t p vg = true ->
             (forall a x : tV, p a = true -> twf x -> mop_eval op x a = x) ->
             tb_post s op f g vf vg phi psi (MDone s f)).
  { intros p E law. apply is_t_true in E. destruct E as (a & Ea & Ep).
    apply RF. intros c Hc. rewrite (Fg a Ea c Hc). apply law; auto. }
  (* the last two arms: a NaN operand, else the triple, swapped or as given *)
  assert (Nan : is_t t_is_nan vf || is_t t_is_nan vg = true ->
             forall c, bchoice c -> mop_eval op (phi c) (psi c) = t_nan).
  { intros E c Hc. apply orb_true_iff in E.
    destruct E as [E|E]; apply is_t_true in E; destruct E as (a & Ea & En).
    - rewrite (Ff a Ea c Hc). apply (mop_eval_nan op a (psi c) En (Wg c Hc)).
    - rewrite (Fg a Ea c Hc). apply (mop_eval_nan op a (phi c) En (Wf c Hc)). }
  assert (TS : mop_comm op -> ((exists nd, vf = MI nd) \/ (exists nd, vg = MI nd)) ->
             tb_post s op f g vf vg phi psi
               (if is_t t_is_nan vf || is_t t_is_nan vg then done_val s t_nan
                else if gt f g then MBin op g f else MBin op f g)).
  { intros Hc Hi. destruct (is_t t_is_nan vf || is_t t_is_nan vg) eqn:En.
    - apply RV; [apply t_nan_wf | exact (Nan eq_refl)].
    - apply tb_post_swap; assumption. }
  assert (TK : ((exists nd, vf = MI nd) \/ (exists nd, vg = MI nd)) ->
             tb_post s op f g vf vg phi psi
               (if is_t t_is_nan vf || is_t t_is_nan vg then done_val s t_nan else MBin op f g)).
  { intros Hi. destruct (is_t t_is_nan vf || is_t t_is_nan vg) eqn:En.
    - apply RV; [apply t_nan_wf | exact (Nan eq_refl)].
    - apply tb_post_keep; assumption. }
  assert (Fe : ref_eqb f g = true -> forall c, bchoice c -> phi c = psi c).
  { intros E c Hc. apply ref_eqb_eq in E. subst g. apply (denm_unique s f phi psi Df Dg c Hc). }
  destruct op; unfold mt_tb.
  - (* Add *)
    destruct (mview_pair vf vg) as [(a & b & -> & ->)|[Hi Hm]].
    + apply (SC a b eq_refl eq_refl). apply t_add_wf; auto.
    + rewrite Hm.
      destruct (is_t t_is_zero vf) eqn:Z1; [apply (UL _ Z1); intros; apply t_add_zero_l; assumption|].
      destruct (is_t t_is_zero vg) eqn:Z2; [apply (UR _ Z2); intros; apply t_add_zero_r; assumption|].
      apply TS; [intros x y; apply t_add_comm | exact Hi].
  - (* Sub *)
    destruct (mview_pair vf vg) as [(a & b & -> & ->)|[Hi Hm]].
    + apply (SC a b eq_refl eq_refl). apply t_sub_wf; auto.
    + rewrite Hm.
      destruct (is_t t_is_zero vg) eqn:Z2; [apply (UR _ Z2); intros; apply t_sub_zero_r; assumption|].
      apply TK. exact Hi.
  - (* Mul *)
    destruct (mview_pair vf vg) as [(a & b & -> & ->)|[Hi Hm]].
    + apply (SC a b eq_refl eq_refl). apply t_mul_wf; auto.
    + rewrite Hm.
      destruct (is_t t_is_one vf) eqn:Z1; [apply (UL _ Z1); intros; apply t_mul_one_l; assumption|].
      destruct (is_t t_is_one vg) eqn:Z2; [apply (UR _ Z2); intros; apply t_mul_one_r; assumption|].
      apply TS; [intros x y; apply t_mul_comm | exact Hi].
  - (* Div *)
    destruct (mview_pair vf vg) as [(a & b & -> & ->)|[Hi Hm]].
    + apply (SC a b eq_refl eq_refl). apply t_div_wf; auto.
    + rewrite Hm.
      destruct (is_t t_is_one vg) eqn:Z2; [apply (UR _ Z2); intros; apply t_div_one_r; assumption|].
      apply TK. exact Hi.
  - (* Min *)
    destruct (ref_eqb f g) eqn:Efg.
    { apply RF. intros c Hc. simpl. rewrite <- (Fe eq_refl c Hc). apply t_min_idem. apply (Wf c Hc). }
    destruct (mview_pair vf vg) as [(a & b & -> & ->)|[Hi Hm]].
    + assert (M : forall c, bchoice c -> mop_eval MMin (phi c) (psi c) = t_min a b)
        by (intros c Hc; simpl; rewrite (Ff a eq_refl c Hc), (Fg b eq_refl c Hc); reflexivity).
      unfold t_min in M.
      destruct (t_cmp a b) as [[| |]|].
      * apply RF. intros c Hc. rewrite (M c Hc). symmetry. apply (Ff a eq_refl c Hc).
      * apply RF. intros c Hc. rewrite (M c Hc). symmetry. apply (Ff a eq_refl c Hc).
      * apply RG. intros c Hc. rewrite (M c Hc). symmetry. apply (Fg b eq_refl c Hc).
      * apply RV; [apply t_nan_wf | exact M].
    + rewrite Hm. apply TS; [intros x y; apply t_min_comm | exact Hi].
  - (* Max *)
    destruct (ref_eqb f g) eqn:Efg.
    { apply RF. intros c Hc. simpl. rewrite <- (Fe eq_refl c Hc). apply t_max_idem. apply (Wf c Hc). }
    destruct (mview_pair vf vg) as [(a & b & -> & ->)|[Hi Hm]].
    + assert (M : forall c, bchoice c -> mop_eval MMax (phi c) (psi c) = t_max a b)
        by (intros c Hc; simpl; rewrite (Ff a eq_refl c Hc), (Fg b eq_refl c Hc); reflexivity).
      unfold t_max in M.
      destruct (t_cmp a b) as [[| |]|].
      * apply RF. intros c Hc. rewrite (M c Hc). symmetry. apply (Ff a eq_refl c Hc).
      * apply RG. intros c Hc. rewrite (M c Hc). symmetry. apply (Fg b eq_refl c Hc).
      * apply RF. intros c Hc. rewrite (M c Hc). symmetry. apply (Ff a eq_refl c Hc).
      * apply RV; [apply t_nan_wf | exact M].
    + rewrite Hm. apply TS; [intros x y; apply t_max_comm | exact Hi].
Qed.

End TB.

(** ** Caches *)

Section CacheSec.
Variable gt : ref -> ref -> bool.
Variable C : Type.
Variable cget : C -> N -> list ref -> option ref.
Variable cadd : C -> N -> list ref -> ref -> C.
Hypothesis Hlossy : lossy cget cadd.

(** an entry is correct in table [s]: the key determines the pointwise
    meaning of the value *)
Definition mentry_ok (s : snap) (opc : N) (args : list ref) (r : ref) : Prop :=
  match args with
  | [f; g] =>
    (forall o, opc = mop_code o ->
       exists phi psi, DenM s f phi /\ DenM s g psi /\
                       DenM s r (fun c => mop_eval o (phi c) (psi c))) /\
    (opc = mcode_restrict ->
       exists phi lits, DenM s f phi /\ Cube s g lits /\
                        DenM s r (fun c => phi (ovr lits c)))
  | [f; g; h] => opc = mcode_ite ->
      exists phi psi theta, DenM s f phi /\ DenM s g psi /\ DenM s h theta /\
        DenM s r (fun c => if t_is_zero (phi c) then theta c else psi c)
  | _ => True
  end.

Definition MCacheOK (s : snap) (c : C) : Prop :=
  forall opc args r, cget c opc args = Some r -> mentry_ok s opc args r.

Lemma mentry_ok_mext : forall s s' opc args r, MtOK s -> mext s s' ->
  mentry_ok s opc args r -> mentry_ok s' opc args r.
Proof.
  intros s s' opc args r B X. unfold mentry_ok.
  destruct args as [|f [|g [|h [|x rest]]]]; auto.
  - intros [H1 H2]. split.
    + intros o Hc. destruct (H1 o Hc) as [phi [psi [A [A' D]]]]. exists phi, psi.
      repeat split; eapply denm_mext; eauto.
    + intros Hc. destruct (H2 Hc) as [phi [lits [A [Cu D]]]]. exists phi, lits.
      split; [eapply denm_mext; eauto|]. split; [eapply cube_mext; eauto | eapply denm_mext; eauto].
  - intros Hx Hc. destruct (Hx Hc) as [phi [psi [theta [A [A' [A'' D]]]]]]. exists phi, psi, theta.
    repeat split; eapply denm_mext; eauto.
Qed.

Lemma mcacheok_mext : forall s s' c, MtOK s -> mext s s' -> MCacheOK s c -> MCacheOK s' c.
Proof. intros s s' c B X O opc args r E. eapply mentry_ok_mext; eauto. Qed.

Lemma mcacheok_add : forall s c opc args r, MCacheOK s c -> mentry_ok s opc args r ->
  MCacheOK s (cadd c opc args r).
Proof.
  intros s c opc args r O Hn opc' args' r' E.
  destruct (Hlossy _ _ _ _ _ _ _ E) as [[-> [-> ->]]|E']; [exact Hn | apply (O _ _ _ E')].
Qed.

Definition mresult_ok (s : snap) (c : C) (res : option (snap * C * ref)) (Phi : mfun) : Prop :=
  exists s' c' r, res = Some (s', c', r) /\
    MtOK s' /\ mext s s' /\ MCacheOK s' c' /\ DenM s' r Phi /\
    (* if the result function already has a reference, that reference is
       returned and the table is unchanged *)
    (forall r0, DenM s r0 Phi -> s' = s /\ r = r0).

Lemma mresult_ok_ext : forall s c res Phi Phi', mresult_ok s c res Phi ->
  (forall c0, bchoice c0 -> Phi c0 = Phi' c0) -> mresult_ok s c res Phi'.
Proof.
  intros s c res Phi Phi' [s' [c' [r [E [B [X [O [D S]]]]]]]] Hp.
  exists s', c', r. split; [exact E|]. split; [exact B|]. split; [exact X|]. split; [exact O|].
  split; [apply (denm_ext s' r Phi Phi' D Hp)|].
  intros r0 D0. apply S. apply (denm_ext s r0 Phi' Phi D0). intros c0 Hc. symmetry. apply Hp. exact Hc.
Qed.

Lemma mresult_ok_here : forall s c r Phi, MtOK s -> MCacheOK s c -> DenM s r Phi ->
  mresult_ok s c (Some (s, c, r)) Phi.
Proof.
  intros s c r Phi B O D. exists s, c, r.
  split; [reflexivity|]. split; [exact B|]. split; [apply mext_refl|]. split; [exact O|].
  split; [exact D|]. intros r0 D0. split; [reflexivity | apply (denm_canon s r r0 Phi B D D0)].
Qed.

Lemma mresult_ok_done : forall s s' c r Phi, MtOK s -> MCacheOK s c -> tb_done_ok s s' r Phi ->
  mresult_ok s c (Some (s', c, r)) Phi.
Proof.
  intros s s' c r Phi B O [B' [X [D S]]]. exists s', c, r.
  split; [reflexivity|]. split; [exact B'|]. split; [exact X|].
  split; [apply (mcacheok_mext s s' c B X O)|]. split; [exact D | exact S].
Qed.

(** ** The recursion step shared by [apply_bin], [apply_ite] and [restrict]

    [Phi], which ignores the levels above [lvl], is built from its two
    cofactors at [lvl]: [res0] is the result for the cofactor 0, [k] the call
    for the cofactor 1 in the table and cache the first call left behind;
    [mk_node] combines the two and the result is entered into the cache
    under [key], [args]. *)

Lemma cof_pick : forall (Phi : mfun) lvl c0, indepM Phi lvl -> bchoice c0 ->
  (if Nat.eqb (c0 lvl) 0 then cofM Phi lvl 0 c0 else cofM Phi lvl 1 c0) = Phi c0.
Proof.
  intros Phi lvl c0 J Hc. rewrite (shannon_pickM c0 lvl (fun i => cofM Phi lvl i c0) Hc). unfold cofM.
  apply J; [apply bchoice_upd; [exact Hc | apply Hc] | exact Hc|].
  intros l _. unfold cupd. destruct (Nat.eqb_spec l lvl) as [->|]; reflexivity.
Qed.

Lemma mresult_ok_node : forall s c (Phi : mfun) lvl key args res0 (k : snap -> C -> option (snap * C * ref)),
  MtOK s -> lvl < nlevels s -> indepM Phi lvl ->
  mresult_ok s c res0 (cofM Phi lvl 0) ->
  (forall s1 c1, MtOK s1 -> mext s s1 -> MCacheOK s1 c1 -> mresult_ok s1 c1 (k s1 c1) (cofM Phi lvl 1)) ->
  (forall s3 r, mext s s3 -> DenM s3 r Phi -> mentry_ok s3 key args r) ->
  mresult_ok s c
    match res0 with
    | None => None
    | Some (s1, c1, t) =>
      match k s1 c1 with
      | None => None
      | Some (s2, c2, e) =>
        let '(s3, h) := mk_node s2 lvl [Build.E t; Build.E e] in
        Some (s3, cadd c2 key args (eref h), eref h)
      end
    end Phi.
Proof.
  intros s c Phi lvl key args res0 k B Hlvl J R0 R1 Hent.
  destruct R0 as (s1 & c1 & t & -> & B1 & X1 & O1 & D1 & S1).
  destruct (R1 s1 c1 B1 X1 O1) as (s2 & c2 & e & -> & B2 & X2 & O2 & D2 & S2).
  destruct (mk_node s2 lvl [Build.E t; Build.E e]) as [s3 h] eqn:Em.
  pose proof (denm_mext s1 s2 _ _ B1 X2 D1) as D1'.
  assert (II : forall i, i < 2 -> indepM (cofM Phi lvl i) (S lvl))
    by (intros i Hi; apply (indepM_cof Phi lvl lvl i J (le_n _) Hi)).
  assert (Hl2 : lvl < nlevels s2) by (rewrite (mx_nlevels _ _ X2), (mx_nlevels _ _ X1); exact Hlvl).
  destruct (node_stepM s2 lvl t e _ _ s3 h B2 Hl2 D1' D2 (II 0 ltac:(lia)) (II 1 ltac:(lia)) Em)
    as [B3 [X3 Dh]].
  assert (X03 : mext s s3).
  { eapply mext_trans; [|apply mext_of_extends; exact X3]. eapply mext_trans; eauto. }
  assert (Dres : DenM s3 (eref h) Phi)
    by (apply (denm_ext _ _ _ _ Dh); intros c0 Hc; apply cof_pick; assumption).
  exists s3, (cadd c2 key args (eref h)), (eref h).
  split; [reflexivity|]. split; [exact B3|]. split; [exact X03|].
  split; [apply mcacheok_add; [apply (mcacheok_mext s2 s3 c2 B2 (mext_of_extends _ _ X3) O2) | apply Hent; assumption]|].
  split; [exact Dres|].
  (* a reference that [Phi] already has: its cofactors are the results of the
     two calls, so [mk_node] finds the node *)
  intros r0 D0.
  assert (L0 : lvl <= rlevel s r0) by (apply (denm_level s r0 _ lvl B D0 ltac:(lia) J)).
  destruct (denm_cof_exists s r0 _ lvl 0 B D0 L0 Hlvl ltac:(lia)) as [q0 Dq0].
  destruct (denm_cof_exists s r0 _ lvl 1 B D0 L0 Hlvl ltac:(lia)) as [q1 Dq1].
  destruct (S1 q0 Dq0) as [Es1 Et]. subst s1 t.
  destruct (S2 q1 Dq1) as [Es2 Ee]. subst s2 e.
  destruct (mk_node_stableM s lvl q0 q1 _ _ s3 h r0 B Hlvl D1' D2 (II 0 ltac:(lia)) (II 1 ltac:(lia)) Em)
    as [Es3 Eh]; auto.
  apply (denm_ext s r0 _ _ D0). intros c0 Hc. symmetry. apply cof_pick; assumption.
Qed.

(** ** [apply_bin] *)

Lemma mt_apply_bin_S : forall n s c op f g,
  mt_apply_bin gt C cget cadd (S n) s c op f g =
  match mt_view s f, mt_view s g with
  | Some vf, Some vg =>
    match mt_tb gt s op f g vf vg with
    | MDone s' h => Some (s', c, h)
    | MBin o a b =>
      match cget c (mop_code o) [a; b] with
      | Some h => Some (s, c, h)
      | None =>
        match omin (olevel vf) (olevel vg) with
        | None => None
        | Some lvl =>
          match mt_cof f vf lvl, mt_cof g vg lvl with
          | Some (f0, f1), Some (g0, g1) =>
            match mt_apply_bin gt C cget cadd n s c op f0 g0 with
            | None => None
            | Some (s1, c1, t) =>
              match mt_apply_bin gt C cget cadd n s1 c1 op f1 g1 with
              | None => None
              | Some (s2, c2, e) =>
                let '(s3, h) := mk_node s2 lvl [E t; E e] in
                Some (s3, cadd c2 (mop_code o) [a; b] (eref h), eref h)
              end
            end
          | _, _ => None
          end
        end
      end
    end
  | _, _ => None
  end.
Proof. reflexivity. Qed.

(** the split level of two operands that are not both terminals *)
Lemma omin_level : forall s f g vf vg, WF s -> mt_view s f = Some vf -> mt_view s g = Some vg ->
  ((exists nd, vf = MI nd) \/ (exists nd, vg = MI nd)) ->
  omin (olevel vf) (olevel vg) = Some (Nat.min (rlevel s f) (rlevel s g)) /\
  Nat.min (rlevel s f) (rlevel s g) < nlevels s.
Proof.
  intros s f g vf vg H Vf Vg Hi.
  pose proof (olevel_rlevel s f vf H Vf) as Lf. pose proof (olevel_rlevel s g vg H Vg) as Lg.
  pose proof (rlevel_le s H f). pose proof (rlevel_le s H g).
  destruct vf as [nf|a], vg as [ng|b]; simpl in *.
  - destruct Lf as [-> ?], Lg as [-> ?]. split; [reflexivity | lia].
  - destruct Lf as [-> ?]. rewrite Lg. split; [f_equal; lia | lia].
  - destruct Lg as [-> ?]. rewrite Lf. split; [f_equal; lia | lia].
  - exfalso. destruct Hi as [[nd E]|[nd E]]; discriminate.
Qed.

Theorem mt_apply_bin_ok : forall op fuel s c f g phi psi,
  MtOK s -> MCacheOK s c -> DenM s f phi -> DenM s g psi ->
  nlevels s - Nat.min (rlevel s f) (rlevel s g) < fuel ->
  mresult_ok s c (mt_apply_bin gt C cget cadd fuel s c op f g)
             (fun c0 => mop_eval op (phi c0) (psi c0)).
Proof.
  intros op. induction fuel as [|n IH]; intros s c f g phi psi B O Df Dg Hfuel; [lia|].
  pose proof (mo_wf s B) as H.
  rewrite mt_apply_bin_S.
  destruct (mt_view_total s f (proj1 Df)) as [vf Vf]. destruct (mt_view_total s g (proj1 Dg)) as [vg Vg].
  rewrite Vf, Vg.
  pose proof (mt_tb_sound gt s op f g vf vg phi psi B Df Dg Vf Vg) as T.
  destruct (mt_tb gt s op f g vf vg) as [s' r|o a b] eqn:Etb; simpl in T.
  - apply mresult_ok_done; assumption.
  - destruct T as [-> [Hin Hab]].
    destruct (cget c (mop_code op) [a; b]) as [h|] eqn:Ec.
    + (* cache hit *)
      destruct (proj1 (O _ _ _ Ec) op eq_refl) as [pa [pb [Da [Db Dh]]]].
      apply mresult_ok_here; auto. apply (denm_ext s h _ _ Dh). intros c0 Hc.
      destruct Hab as [[-> ->]|[-> [-> Hcomm]]].
      * rewrite (denm_unique s _ pa phi Da Df c0 Hc), (denm_unique s _ pb psi Db Dg c0 Hc). reflexivity.
      * rewrite (denm_unique s _ pa psi Da Dg c0 Hc), (denm_unique s _ pb phi Db Df c0 Hc).
        apply Hcomm; [apply (denm_wf s _ psi B Dg c0 Hc) | apply (denm_wf s _ phi B Df c0 Hc)].
    + destruct (omin_level s f g vf vg H Vf Vg Hin) as [El Hlvl]. rewrite El.
      set (lvl := Nat.min (rlevel s f) (rlevel s g)) in *.
      destruct (mt_cof_ok s f vf phi lvl B Df Vf ltac:(lia) Hlvl) as [ft [fe [Ecf [Dft [Dfe [Lft Lfe]]]]]].
      destruct (mt_cof_ok s g vg psi lvl B Dg Vg ltac:(lia) Hlvl) as [gt' [ge [Ecg [Dgt [Dge [Lgt Lge]]]]]].
      rewrite Ecf, Ecg.
      assert (Ip : indepM phi (rlevel s f)) by (apply (denm_indep s _ phi H Df)).
      assert (Iq : indepM psi (rlevel s g)) by (apply (denm_indep s _ psi H Dg)).
      apply (mresult_ok_node s c (fun c0 => mop_eval op (phi c0) (psi c0)) lvl (mop_code op) [a; b] _
               (fun s1 c1 => mt_apply_bin gt C cget cadd n s1 c1 op fe ge) B Hlvl).
      * intros x y Hx Hy Exy. f_equal.
        -- apply (indepM_mono phi _ lvl Ip ltac:(lia)); auto.
        -- apply (indepM_mono psi _ lvl Iq ltac:(lia)); auto.
      * apply (IH s c ft gt' _ _ B O Dft Dgt). lia.
      * intros s1 c1 B1 X1 O1.
        apply (IH s1 c1 fe ge _ _ B1 O1 (denm_mext s s1 _ _ B X1 Dfe) (denm_mext s s1 _ _ B X1 Dge)).
        rewrite (mx_nlevels _ _ X1), (mx_rlevel _ _ _ X1 (proj1 Dfe)), (mx_rlevel _ _ _ X1 (proj1 Dge)). lia.
      * intros s3 r X03 Dres. split.
        -- intros o Ho. apply mop_code_inj in Ho. subst o.
           pose proof (denm_mext s s3 _ _ B X03 Df) as Df3.
           pose proof (denm_mext s s3 _ _ B X03 Dg) as Dg3.
           destruct Hab as [[-> ->]|[-> [-> Hcomm]]].
           ++ exists phi, psi. auto.
           ++ exists psi, phi. split; [exact Dg3|]. split; [exact Df3|].
              apply (denm_ext _ _ _ _ Dres). intros c0 Hc0.
              apply Hcomm; [apply (denm_wf s _ phi B Df c0 Hc0) | apply (denm_wf s _ psi B Dg c0 Hc0)].
        -- intros Hx. exfalso. destruct op; discriminate.
Qed.

End CacheSec.

End PG.

Arguments MCacheOK {TA C}.
Arguments mentry_ok {TA} s opc args r : simpl never.
