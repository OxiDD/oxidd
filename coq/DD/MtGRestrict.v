(** * Correctness of the MTBDD restrict (generic, DD/MtG.v: [mt_restrict_inner],
      [mt_restrict] = [restrict] of oxidd-rules-mtbdd/src/apply_rec.rs)

    For a cube [vars] with literal list [lits] ([Cube], DD/MtGProofs.v)
    [mt_restrict_ok]: the result denotes [fun c => phi (ovr lits c)]: the
    operand's function with the levels of the literals forced. *)

From Coq Require Import List NArith ZArith PArith Bool Arith Lia FMapPositive.
From OxiVerif Require Import DD.Table DD.TableProofs DD.Canon DD.Sem DD.Build DD.BuildProofs
  DD.Apply DD.ApplyProofs DD.MtG DD.MtGBase DD.MtGProofs.
Import ListNotations.

Section RG.
Context {TA : talg} {TL : tlaws TA}.

(** ** Overrides and cubes *)

Lemma denm_pointwise : forall s r phi c c', WF s -> DenM s r phi -> bchoice c -> bchoice c' ->
  (forall l, c l = c' l) -> phi c = phi c'.
Proof. intros s r phi c c' H D Hc Hc' E. apply (denm_indep s r phi H D c c' Hc Hc'). intros l _. apply E. Qed.

Lemma assoc_nat_none : forall (lits : list (nat * bool)) l,
  (forall b, ~ In (l, b) lits) -> assoc_nat lits l = None.
Proof.
  induction lits as [|[k b] r IH]; intros l Hn; [reflexivity|]. simpl.
  destruct (Nat.eqb_spec k l) as [->|Hne].
  - exfalso. apply (Hn b). left. reflexivity.
  - apply IH. intros b' Hin. apply (Hn b'). right. exact Hin.
Qed.

(** a level that carries no literal keeps its choice *)
Lemma ovr_other : forall lits c l, (forall b, ~ In (l, b) lits) -> ovr lits c l = c l.
Proof. intros lits c l Hn. unfold ovr. rewrite (assoc_nat_none lits l Hn). reflexivity. Qed.

Lemma ovr_nil : forall c l, ovr [] c l = c l.
Proof. reflexivity. Qed.

Lemma ovr_cons : forall k b lits c l,
  ovr ((k, b) :: lits) c l = if Nat.eqb k l then (if b then 0 else 1) else ovr lits c l.
Proof. intros. unfold ovr. simpl. destruct (Nat.eqb k l); reflexivity. Qed.

(** [ovr] keeps two choices equal where they were equal *)
Lemma ovr_agree : forall lits c c' (P : nat -> Prop),
  (forall l, P l -> c l = c' l) -> forall l, P l -> ovr lits c l = ovr lits c' l.
Proof. intros lits c c' P E l Hl. unfold ovr. destruct (assoc_nat lits l); [reflexivity | apply E; exact Hl]. Qed.

(** the literals of a cube sit at the root's level or deeper, inside the table *)
Lemma cube_levels : forall s r lits, WF s -> Cube s r lits ->
  forall l b, In (l, b) lits -> rlevel s r <= l /\ l < nlevels s.
Proof.
  intros s r lits H Hc. induction Hc as [t Et | id nd rest t0 lits En Ech Et Hr IH | id nd rest t0 lits En Ech Et Hr IH];
    intros l b Hin.
  - destruct Hin.
  - rewrite (rlevel_node s id nd En). destruct Hin as [Hin|Hin].
    + inversion Hin; subst. split; [lia | apply (wf_level s H id nd En)].
    + destruct (IH l b Hin) as [A A'].
      assert (Hch : nth_error (nchildren nd) 0 = Some (E rest)) by (rewrite Ech; reflexivity).
      destruct (child_nth s H id nd 0 _ En Hch) as [_ L]. simpl in L. lia.
  - rewrite (rlevel_node s id nd En). destruct Hin as [Hin|Hin].
    + inversion Hin; subst. split; [lia | apply (wf_level s H id nd En)].
    + destruct (IH l b Hin) as [A A'].
      assert (Hch : nth_error (nchildren nd) 1 = Some (E rest)) by (rewrite Ech; reflexivity).
      destruct (child_nth s H id nd 1 _ En Hch) as [_ L]. simpl in L. lia.
Qed.

Lemma cube_ovr_below : forall s r lits c l, WF s -> Cube s r lits -> l < rlevel s r ->
  ovr lits c l = c l.
Proof.
  intros s r lits c l H Hc Hl. apply ovr_other. intros b Hin.
  destruct (cube_levels s r lits H Hc l b Hin). lia.
Qed.

Lemma cube_ovr_above : forall s r lits c l, WF s -> Cube s r lits -> nlevels s <= l ->
  ovr lits c l = c l.
Proof.
  intros s r lits c l H Hc Hl. apply ovr_other. intros b Hin.
  destruct (cube_levels s r lits H Hc l b Hin). lia.
Qed.

(** a cube that is a terminal has no literals and is the terminal 1 *)
Lemma cube_term : forall s t lits, Cube s (RT t) lits ->
  lits = [] /\ term_val s t = Some (t_code t_one).
Proof. intros s t lits Hc. inversion Hc; subst. auto. Qed.

(** a terminal operand: forcing levels does not change a constant *)
Lemma denm_term_ovr : forall s t P r lits, WF s -> DenM s (RT t) P -> Cube s r lits ->
  DenM s (RT t) (fun c => P (ovr lits c)).
Proof.
  intros s t P r lits H D Hc. apply (denm_ext s (RT t) P); [exact D|].
  intros c Hcb. apply (denm_indep s (RT t) P H D); [exact Hcb | apply ovr_bchoice; exact Hcb|].
  intros l Hl. simpl in Hl. symmetry. apply (cube_ovr_above s r lits c l H Hc Hl).
Qed.

(** ** The tail-recursive walk *)

Lemma mt_restrict_inner_S : forall n s f fnode flevel vars vnode,
  mt_restrict_inner (S n) s f fnode flevel vars vnode =
    let vlevel := nstored vnode in
    if Nat.ltb flevel vlevel then Some (RRec vars f fnode)
    else
      match nchildren vnode with
      | [vt; ve] =>
        if Nat.ltb vlevel flevel then
          match mt_view s (eref vt) with
          | None => None
          | Some (MI nd) => mt_restrict_inner n s f fnode flevel (eref vt) nd
          | Some (MT t) =>
            if t_is_one t then Some (RDone f)
            else
              match mt_view s (eref ve) with
              | None => None
              | Some (MI nd) => mt_restrict_inner n s f fnode flevel (eref ve) nd
              | Some (MT _) => Some (RDone f)
              end
          end
        else
          match nchildren fnode with
          | [ft; fe] =>
            let continue (f' vars' : ref) (vnode' : node) :=
              match mt_view s f' with
              | None => None
              | Some (MI fnode') => mt_restrict_inner n s f' fnode' (nstored fnode') vars' vnode'
              | Some (MT _) => Some (RDone f')
              end in
            match mt_view s (eref vt) with
            | None => None
            | Some (MI nd) => continue (eref ft) (eref vt) nd
            | Some (MT t) =>
              if t_is_one t then Some (RDone (eref ft))
              else
                match mt_view s (eref ve) with
                | None => None
                | Some (MI nd) => continue (eref fe) (eref ve) nd
                | Some (MT _) => Some (RDone (eref fe))
                end
            end
          | _ => None
          end
      | _ => None
      end.
Proof. reflexivity. Qed.

(** what the walk establishes *)
Definition rin_post (s : snap) (L : nat) (phi : mfun) (lits : list (nat * bool)) (res : rin_res) : Prop :=
  match res with
  | RDone r => DenM s r (fun c => phi (ovr lits c))
  | RRec vars' f' fnode' =>
    exists id' phi' lits', f' = RN id' /\ find_node s id' = Some fnode' /\ DenM s f' phi' /\
      Cube s vars' lits' /\ nlevel fnode' < rlevel s vars' /\ L <= nlevel fnode' /\
      (forall c, bchoice c -> phi' (ovr lits' c) = phi (ovr lits c))
  end.

Lemma rin_post_ext : forall s L phi phi2 lits lits2 res,
  rin_post s L phi lits res ->
  (forall c, bchoice c -> phi (ovr lits c) = phi2 (ovr lits2 c)) ->
  rin_post s L phi2 lits2 res.
Proof.
  intros s L phi phi2 lits lits2 [r|v f fn] Hp E; simpl in *.
  - apply (denm_ext s r _ _ Hp). exact E.
  - destruct Hp as [id' [phi' [lits' [A1 [A2 [A3 [A4 [A5 [A6 A7]]]]]]]]].
    exists id', phi', lits'. repeat (split; [assumption|]).
    intros c Hc. rewrite (A7 c Hc). apply E. exact Hc.
Qed.

Lemma rin_post_mono : forall s L L' phi lits res, rin_post s L phi lits res -> L' <= L ->
  rin_post s L' phi lits res.
Proof.
  intros s L L' phi lits [r|v f fn] Hp Hle; simpl in *; [exact Hp|].
  destruct Hp as [id' [phi' [lits' [A1 [A2 [A3 [A4 [A5 [A6 A7]]]]]]]]].
  exists id', phi', lits'. repeat (split; [assumption|]). split; [lia | exact A7].
Qed.

(** the value one/zero terminals as [mt_view] sees them *)
Lemma view_one : forall s t, term_val s t = Some (t_code t_one) -> mt_view s (RT t) = Some (MT t_one).
Proof. intros s t E. simpl. rewrite E, t_decode_code. reflexivity. Qed.
Lemma view_zero : forall s t, term_val s t = Some (t_code t_zero) -> mt_view s (RT t) = Some (MT t_zero).
Proof. intros s t E. simpl. rewrite E, t_decode_code. reflexivity. Qed.

(** the rest of a cube, as the walk sees it: an inner node (a further
    literal) or the terminal 1 *)
Lemma cube_rest_view : forall s rest lits, Cube s rest lits ->
  (exists id nd, rest = RN id /\ find_node s id = Some nd /\ mt_view s rest = Some (MI nd)) \/
  (exists t, rest = RT t /\ lits = [] /\ mt_view s rest = Some (MT t_one)).
Proof.
  intros s rest lits Hc. inversion Hc; subst.
  - right. exists t. split; [reflexivity|]. split; [reflexivity | apply view_one; assumption].
  - left. exists id, nd. split; [reflexivity|]. split; [assumption|]. simpl.
    match goal with Hn : find_node s id = Some nd |- _ => rewrite Hn end. reflexivity.
  - left. exists id, nd. split; [reflexivity|]. split; [assumption|]. simpl.
    match goal with Hn : find_node s id = Some nd |- _ => rewrite Hn end. reflexivity.
Qed.

Theorem mt_restrict_inner_ok : forall fuel s idf fnode idv vnode phi lits,
  MtOK s -> find_node s idf = Some fnode -> find_node s idv = Some vnode ->
  DenM s (RN idf) phi -> Cube s (RN idv) lits ->
  (nlevels s - nlevel fnode) + (nlevels s - nlevel vnode) < fuel ->
  exists res, mt_restrict_inner fuel s (RN idf) fnode (nlevel fnode) (RN idv) vnode = Some res /\
    rin_post s (nlevel fnode) phi lits res.
Proof.
  induction fuel as [|n IH]; intros s idf fnode idv vnode phi lits B Ef Ev Df Hcube Hfuel; [lia|].
  pose proof (mo_wf s B) as H.
  rewrite mt_restrict_inner_S. cbv zeta.
  rewrite (wf_stored s H idv vnode Ev).
  pose proof (wf_level s H idf fnode Ef) as Hlf. pose proof (wf_level s H idv vnode Ev) as Hlv.
  destruct (Nat.ltb_spec (nlevel fnode) (nlevel vnode)) as [Hfv|Hfv].
  { (* f above vars *)
    eexists. split; [reflexivity|]. unfold rin_post.
    exists idf, phi, lits. split; [reflexivity|]. split; [exact Ef|]. split; [exact Df|].
    split; [exact Hcube|]. split; [rewrite (rlevel_node s idv vnode Ev); exact Hfv|].
    split; [lia|]. intros c _. reflexivity. }
  assert (Ipf : indepM phi (nlevel fnode))
    by (rewrite <- (rlevel_node s idf fnode Ef); apply (denm_indep s _ phi H Df)).
  (* the continuation after selecting a branch of [f] *)
  assert (Cont : forall f' P rest lits1 idr ndr,
            DenM s f' P -> nlevel fnode < rlevel s f' ->
            rest = RN idr -> find_node s idr = Some ndr -> Cube s rest lits1 ->
            nlevel vnode < nlevel ndr ->
            exists res,
              match mt_view s f' with
              | None => None
              | Some (MI fnode') => mt_restrict_inner n s f' fnode' (nstored fnode') rest ndr
              | Some (MT _) => Some (RDone f')
              end = Some res /\ rin_post s (nlevel fnode) P lits1 res).
  { intros f' P rest lits1 idr ndr DP Lf' -> Er Hc1 Lr.
    destruct (mt_view_total s f' (proj1 DP)) as [v' V']. rewrite V'. destruct v' as [fnode'|x].
    - destruct (mt_view_MI s f' fnode' V') as [id' [-> E']].
      rewrite (wf_stored s H id' fnode' E').
      rewrite (rlevel_node s id' fnode' E') in Lf'.
      pose proof (wf_level s H id' fnode' E').
      destruct (IH s id' fnode' idr ndr P lits1 B E' Er DP Hc1 ltac:(lia)) as [res [Eres Pres]].
      exists res. split; [exact Eres|]. apply (rin_post_mono _ _ _ _ _ _ Pres). lia.
    - destruct (mt_view_MT s f' x V') as [t [-> _]].
      eexists. split; [reflexivity|]. simpl. apply (denm_term_ovr s t P (RN idr) lits1 H DP Hc1). }
  (* a literal above [f] is irrelevant for [phi]; one at the level of [f]
     selects the child of its polarity *)
  assert (Skip : forall pol lits1, nlevel vnode < nlevel fnode -> forall c, bchoice c ->
            phi (ovr lits1 c) = phi (ovr ((nlevel vnode, pol) :: lits1) c)).
  { intros pol lits1 Hvf c Hc. apply Ipf; try (apply ovr_bchoice; exact Hc).
    intros l Hl. rewrite ovr_cons. destruct (Nat.eqb_spec (nlevel vnode) l); [lia | reflexivity]. }
  assert (Sel : forall (pol : bool) lits1, nlevel vnode = nlevel fnode -> forall c, bchoice c ->
            cofM phi (nlevel fnode) (if pol then 0 else 1) (ovr lits1 c)
            = phi (ovr ((nlevel vnode, pol) :: lits1) c)).
  { intros pol lits1 Elv c Hc. unfold cofM.
    apply (denm_pointwise s _ phi _ _ H Df);
      [apply bchoice_upd; [apply ovr_bchoice; exact Hc | destruct pol; lia] | apply ovr_bchoice; exact Hc|].
    intros l. rewrite ovr_cons, Elv. unfold cupd. rewrite (Nat.eqb_sym l).
    destruct (Nat.eqb (nlevel fnode) l); reflexivity. }
  (* the top literal, polarity [pol], once the walk has found the rest of the
     cube: [f] stays (literal above [f]) or its child of that polarity is taken *)
  assert (Lit : forall (pol : bool) rest lits1, Cube s rest lits1 -> nlevel vnode < rlevel s rest ->
            exists res,
              (if nlevel vnode <? nlevel fnode
               then match mt_view s rest with
                    | Some (MI nd) => mt_restrict_inner n s (RN idf) fnode (nlevel fnode) rest nd
                    | Some (MT _) => Some (RDone (RN idf))
                    | None => None
                    end
               else match nchildren fnode with
                    | [ft; fe] =>
                      let f' := eref (if pol then ft else fe) in
                      match mt_view s rest with
                      | Some (MI nd) =>
                        match mt_view s f' with
                        | Some (MI fnode') => mt_restrict_inner n s f' fnode' (nstored fnode') rest nd
                        | Some (MT _) => Some (RDone f')
                        | None => None
                        end
                      | Some (MT _) => Some (RDone f')
                      | None => None
                      end
                    | _ => None
                    end) = Some res /\
              rin_post s (nlevel fnode) phi ((nlevel vnode, pol) :: lits1) res).
  { intros pol rest lits1 Hrest Lrest.
    destruct (Nat.ltb_spec (nlevel vnode) (nlevel fnode)) as [Hvf|Hvf].
    - pose proof (Skip pol lits1 Hvf) as Skip'.
      destruct (cube_rest_view s rest lits1 Hrest) as [[idr [ndr [-> [Er Vr]]]]|[t [-> [-> Vr]]]]; rewrite Vr.
      + rewrite (rlevel_node s idr ndr Er) in Lrest.
        destruct (IH s idf fnode idr ndr phi lits1 B Ef Er Df Hrest ltac:(lia)) as [res [Eres Pres]].
        exists res. split; [exact Eres|]. apply (rin_post_ext _ _ _ _ _ _ _ Pres Skip').
      + eexists. split; [reflexivity|]. simpl. apply (denm_ext s _ phi _ Df).
        intros c Hc. rewrite <- (Skip' c Hc). apply (denm_pointwise s _ phi _ _ H Df Hc (ovr_bchoice _ _ Hc)).
        intros l. reflexivity.
    - assert (Elv : nlevel vnode = nlevel fnode) by lia.
      destruct (mt_children s idf fnode B Ef) as [a [b Echf]]. rewrite Echf. cbv zeta.
      assert (Hi : (if pol then 0 else 1) < 2) by (destruct pol; lia).
      assert (Hch : nth_error (nchildren fnode) (if pol then 0 else 1) = Some (if pol then a else b))
        by (rewrite Echf; destruct pol; reflexivity).
      pose proof (denm_child s idf fnode _ _ phi B Df Ef Hch) as Dch.
      destruct (child_nth s H idf fnode _ _ Ef Hch) as [_ Lch].
      pose proof (Sel pol lits1 Elv) as Sel'.
      destruct (cube_rest_view s rest lits1 Hrest) as [[idr [ndr [-> [Er Vr]]]]|[t [-> [-> Vr]]]]; rewrite Vr.
      + rewrite (rlevel_node s idr ndr Er) in Lrest.
        destruct (Cont _ _ (RN idr) lits1 idr ndr Dch Lch eq_refl Er Hrest Lrest) as [res [Eres Pres]].
        exists res. split; [exact Eres|]. apply (rin_post_ext _ _ _ _ _ _ _ Pres Sel').
      + eexists. split; [reflexivity|]. simpl. apply (denm_ext s _ _ _ Dch).
        intros c Hc. rewrite <- (Sel' c Hc). unfold cofM.
        apply (denm_pointwise s _ phi _ _ H Df);
          [apply bchoice_upd; [exact Hc | exact Hi]
          | apply bchoice_upd; [apply ovr_bchoice; exact Hc | exact Hi]|].
        intros l. reflexivity. }
  inversion Hcube as [| id nd rest t0 lits1 En Ech Et0 Hrest | id nd rest t0 lits1 En Ech Et0 Hrest];
    subst; rewrite Ev in En; inversion En; subst nd; rewrite Ech; simpl eref.
  - (* positive literal: the rest is the first child; if it is a terminal it is 1 *)
    assert (Hch0 : nth_error (nchildren vnode) 0 = Some (E rest)) by (rewrite Ech; reflexivity).
    destruct (child_nth s H idv vnode 0 _ Ev Hch0) as [_ Lrest]. simpl in Lrest.
    pose proof (Lit true rest lits1 Hrest Lrest) as L.
    destruct (cube_rest_view s rest lits1 Hrest) as [[idr [ndr [-> [Er Vr]]]]|[t [-> [-> Vr]]]]; rewrite Vr in *;
      [exact L | rewrite t_is_one_one; exact L].
  - (* negative literal: the first child is the terminal 0, the rest is the second *)
    assert (Hch1 : nth_error (nchildren vnode) 1 = Some (E rest)) by (rewrite Ech; reflexivity).
    destruct (child_nth s H idv vnode 1 _ Ev Hch1) as [_ Lrest]. simpl in Lrest.
    rewrite (view_zero s t0 Et0). cbv iota beta. rewrite t_is_one_zero.
    exact (Lit false rest lits1 Hrest Lrest).
Qed.

(** ** [restrict] *)

Section RestrictSec.
Variable C : Type.
Variable cget : C -> N -> list ref -> option ref.
Variable cadd : C -> N -> list ref -> ref -> C.
Hypothesis Hlossy : lossy cget cadd.

Lemma mt_restrict_S : forall n s c f vars,
  mt_restrict C cget cadd (S n) s c f vars =
    match mt_view s f, mt_view s vars with
    | Some (MI fnode), Some (MI vnode) =>
      match mt_restrict_inner (rin_fuel s) s f fnode (nstored fnode) vars vnode with
      | None => None
      | Some (RDone r) => Some (s, c, r)
      | Some (RRec vars' f' fnode') =>
        match cget c mcode_restrict [f'; vars'] with
        | Some r => Some (s, c, r)
        | None =>
          match nchildren fnode' with
          | [ft; fe] =>
            match mt_restrict C cget cadd n s c (eref ft) vars' with
            | None => None
            | Some (s1, c1, t) =>
              match mt_restrict C cget cadd n s1 c1 (eref fe) vars' with
              | None => None
              | Some (s2, c2, e) =>
                let '(s3, r) := mk_node s2 (nstored fnode') [E t; E e] in
                Some (s3, cadd c2 mcode_restrict [f'; vars'] (eref r), eref r)
              end
            end
          | _ => None
          end
        end
      end
    | Some _, Some _ => Some (s, c, f)
    | _, _ => None
    end.
Proof. reflexivity. Qed.

Theorem mt_restrict_ok : forall fuel s c f vars phi lits,
  MtOK s -> MCacheOK cget s c -> DenM s f phi -> Cube s vars lits ->
  nlevels s - rlevel s f < fuel ->
  mresult_ok C cget s c (mt_restrict C cget cadd fuel s c f vars) (fun c0 => phi (ovr lits c0)).
Proof.
  induction fuel as [|n IH]; intros s c f vars phi lits B O Df Hcube Hfuel; [lia|].
  pose proof (mo_wf s B) as H.
  rewrite mt_restrict_S.
  destruct (mt_view_total s f (proj1 Df)) as [vf Vf]. rewrite Vf.
  assert (Ovars : ref_ok s vars).
  { inversion Hcube; subst; simpl; eauto. }
  destruct (mt_view_total s vars Ovars) as [vv Vv]. rewrite Vv.
  (* the two early exits *)
  assert (Exit1 : forall x, vf = MT x -> mresult_ok C cget s c (Some (s, c, f)) (fun c0 => phi (ovr lits c0))).
  { intros x ->. destruct (mt_view_MT s f x Vf) as [t [-> _]].
    apply mresult_ok_here; auto. apply (denm_term_ovr s t phi vars lits H Df Hcube). }
  assert (Exit2 : forall x, vv = MT x -> mresult_ok C cget s c (Some (s, c, f)) (fun c0 => phi (ovr lits c0))).
  { intros x ->. destruct (mt_view_MT s vars x Vv) as [t [-> _]].
    destruct (cube_term s t lits Hcube) as [-> _].
    apply mresult_ok_here; auto. }
  destruct vf as [fnode|x]; [|destruct vv; apply (Exit1 x eq_refl)].
  destruct vv as [vnode|x]; [|apply (Exit2 x eq_refl)].
  destruct (mt_view_MI s f fnode Vf) as [idf [-> Ef]].
  destruct (mt_view_MI s vars vnode Vv) as [idv [-> Ev]].
  rewrite (wf_stored s H idf fnode Ef).
  pose proof (wf_level s H idf fnode Ef) as Hlf. pose proof (wf_level s H idv vnode Ev) as Hlv.
  destruct (mt_restrict_inner_ok (rin_fuel s) s idf fnode idv vnode phi lits B Ef Ev Df Hcube
              ltac:(unfold rin_fuel; lia)) as [res [Eres Pres]].
  rewrite Eres. destruct res as [r|vars' f' fnode']; simpl in Pres.
  { apply mresult_ok_here; auto. }
  destruct Pres as [id' [phi' [lits' [-> [E' [Df' [Hcube' [Lv' [Lf' Eq']]]]]]]]].
  apply (mresult_ok_ext C cget s c _ (fun c0 => phi' (ovr lits' c0))); [|exact Eq'].
  rewrite (rlevel_node s idf fnode Ef) in Hfuel.
  destruct (cget c mcode_restrict [RN id'; vars']) as [r|] eqn:Ec.
  { destruct (proj2 (O _ _ _ Ec) eq_refl) as [pa [la [Da [Ca Dr]]]].
    apply mresult_ok_here; auto. apply (denm_ext s r _ _ Dr). intros c0 Hc.
    rewrite (cube_fun s vars' la lits' Ca Hcube').
    apply (denm_unique s _ pa phi' Da Df' _ (ovr_bchoice _ _ Hc)). }
  destruct (mt_children s id' fnode' B E') as [a [b Ech]]. rewrite Ech.
  rewrite (wf_stored s H id' fnode' E').
  pose proof (wf_level s H id' fnode' E') as Hl'.
  set (lvl := nlevel fnode') in *.
  assert (Ha : nth_error (nchildren fnode') 0 = Some a) by (rewrite Ech; reflexivity).
  assert (Hb : nth_error (nchildren fnode') 1 = Some b) by (rewrite Ech; reflexivity).
  pose proof (denm_child s id' fnode' 0 a phi' B Df' E' Ha) as Da.
  pose proof (denm_child s id' fnode' 1 b phi' B Df' E' Hb) as Db.
  destruct (child_nth s H id' fnode' 0 a E' Ha) as [Oa La].
  destruct (child_nth s H id' fnode' 1 b E' Hb) as [Ob Lb].
  fold lvl in Da, Db, La, Lb.
  assert (Ip : indepM phi' lvl)
    by (unfold lvl; rewrite <- (rlevel_node s id' fnode' E'); apply (denm_indep s _ phi' H Df')).
  (* the level of the node carries no literal *)
  assert (Nolit : forall c0, ovr lits' c0 lvl = c0 lvl)
    by (intros c0; apply (cube_ovr_below s vars' lits' c0 lvl H Hcube' Lv')).
  (* cofactor of the composed function = composed cofactor *)
  assert (Cof : forall i, i < 2 -> forall c0, bchoice c0 ->
            cofM phi' lvl i (ovr lits' c0) = cofM (fun c1 => phi' (ovr lits' c1)) lvl i c0).
  { intros i Hi c0 Hc. unfold cofM.
    apply (denm_pointwise s _ phi' _ _ H Df');
      [apply bchoice_upd; [apply ovr_bchoice; assumption | assumption]
      | apply ovr_bchoice; apply bchoice_upd; assumption|].
    intros l. unfold cupd at 1. destruct (Nat.eqb_spec l lvl) as [->|Hne].
    - rewrite Nolit. unfold cupd. rewrite Nat.eqb_refl. reflexivity.
    - unfold ovr. destruct (assoc_nat lits' l); [reflexivity|].
      unfold cupd. destruct (Nat.eqb_spec l lvl); [contradiction | reflexivity]. }
  apply (mresult_ok_node C cget cadd Hlossy s c (fun c0 => phi' (ovr lits' c0)) lvl mcode_restrict
           [RN id'; vars'] _ (fun s1 c1 => mt_restrict C cget cadd n s1 c1 (eref b) vars') B Hl').
  - intros x y Hx Hy Exy. apply Ip; try (apply ovr_bchoice; assumption).
    intros l Hl. apply (ovr_agree lits' x y (fun l => lvl <= l)); assumption.
  - apply (mresult_ok_ext C cget s c _ (fun c0 => cofM phi' lvl 0 (ovr lits' c0))); [|apply Cof; lia].
    apply (IH s c (eref a) vars' _ lits' B O Da Hcube'). lia.
  - intros s1 c1 B1 X1 O1.
    apply (mresult_ok_ext C cget s1 c1 _ (fun c0 => cofM phi' lvl 1 (ovr lits' c0))); [|apply Cof; lia].
    apply (IH s1 c1 (eref b) vars' _ lits' B1 O1 (denm_mext s s1 _ _ B X1 Db) (cube_mext s s1 _ _ X1 Hcube')).
    rewrite (mx_nlevels _ _ X1), (mx_rlevel _ _ _ X1 Ob). lia.
  - intros s3 r X03 Dres. split.
    + intros o Ho. exfalso. destruct o; discriminate.
    + intros _. exists phi', lits'.
      split; [apply (denm_mext s s3 _ _ B X03 Df')|].
      split; [apply (cube_mext s s3 _ _ X03 Hcube') | exact Dres].
Qed.

End RestrictSec.

End RG.
