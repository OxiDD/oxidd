(** * MTBDD operations: constants, variables, evaluation, the theorems in
      terms of the interpreter [semk] only, cache transparency and history
      independence, cubes

    - [mt_const_ok], [mt_var_ok], [mt_eval_walk_sem], [mt_eval_assignment];
    - [mt_apply_bin_sound], [mt_apply_ite_sound], [mt_restrict_sound]: for every
      [MtOK] table, correct cache of any [lossy] implementation, operand order
      and fuel >= [FUEL s], the operations return a result whose value under
      every choice is the scalar operation applied to the operands' values;
    - [mfun_of], [mt_apply_bin_mfun], [mt_var_mfun]: the same in terms of
      assignments (variable |-> bool) under the table's variable order;
    - [mt_apply_bin_cache_transparent], [mt_*_history_independent]: the
      returned reference does not depend on the cache, the operand order or
      the history;
    - [cube_den]: a [Cube] denotes the product of its literals;
      [cube_lits_sound]: the checker [cube_lits] establishes [Cube]. *)

From Coq Require Import List NArith ZArith PArith Bool Arith Lia FMapPositive.
From OxiVerif Require Import DD.Table DD.TableProofs DD.Canon DD.Sem DD.Build DD.BuildProofs
  DD.Apply DD.ApplyProofs DD.ApplyEvalProofs DD.MtG DD.MtGBase DD.MtGProofs
  DD.MtGIte DD.MtGRestrict.
Import ListNotations.

Section TG.
Context {TA : talg} {TL : tlaws TA}.

(** ** Cache instances (the instances of DD/Apply.v) *)

Lemma mac_empty_ok : forall s, MCacheOK ac_get s [].
Proof. intros s opc args r E. discriminate. Qed.

Lemma mnc_ok : forall s c, MCacheOK nc_get s c.
Proof. intros s c opc args r E. discriminate. Qed.

(** ** Constants and variables *)

Theorem mt_const_ok : forall s v s' r, MtOK s -> twf v -> mt_const s v = (s', r) ->
  MtOK s' /\ mext s s' /\ DenM s' r (fun _ => v) /\
  (forall r0, DenM s r0 (fun _ => v) -> s' = s /\ r = r0).
Proof. intros s v s' r. apply get_terminal_ok. Qed.

Lemma wf_one : twf t_one.
Proof. apply t_one_wf. Qed.
Lemma wf_zero : twf t_zero.
Proof. apply t_zero_wf. Qed.

Theorem mt_var_ok : forall s v, MtOK s -> v < nlevels s ->
  exists lvl s' r, nth_error (s_v2l s) v = Some lvl /\ mt_var s v = Some (s', r) /\
    MtOK s' /\ mext s s' /\
    DenM s' r (fun c => if Nat.eqb (c lvl) 0 then t_one else t_zero).
Proof.
  intros s v B Hv. pose proof (mo_wf s B) as H.
  assert (Hv' : v < length (s_v2l s)) by (rewrite (wf_perm_len s H); exact Hv).
  destruct (wf_perm_v2l s H v Hv') as [lvl [E1 E2]].
  assert (Hlvl : lvl < nlevels s) by (unfold nlevels; apply nth_error_Some; congruence).
  unfold mt_var. rewrite E1.
  destruct (get_terminal s t_one) as [s1 t] eqn:G1.
  destruct (get_terminal_ok s t_one s1 t B wf_one G1) as [B1 [X1 [D1 _]]].
  destruct (get_terminal s1 t_zero) as [s2 e] eqn:G2.
  destruct (get_terminal_ok s1 t_zero s2 e B1 wf_zero G2) as [B2 [X2 [D2 _]]].
  pose proof (denm_mext s1 s2 _ _ B1 X2 D1) as D1'.
  destruct (denm_const_term s2 t t_one B2 D1') as [t1 [-> V1]].
  destruct (denm_const_term s2 e t_zero B2 D2) as [t0 [-> V0]].
  assert (Hne : t1 <> t0).
  { intros ->. rewrite V1 in V0. apply code_zero_one. congruence. }
  pose proof (mo_wf s2 B2) as H2.
  assert (Hl2 : lvl < nlevels s2) by (rewrite (mx_nlevels _ _ X2), (mx_nlevels _ _ X1); exact Hlvl).
  set (ch := [E (RT t1); E (RT t0)]).
  assert (Hae : all_equal ch = false).
  { unfold ch. simpl. unfold edge_eqb. simpl. rewrite andb_true_r, andb_false_iff. left.
    apply N.eqb_neq. exact Hne. }
  assert (Hch : children_ok s2 lvl ch).
  { split; [rewrite (mo_kind s2 B2); reflexivity|].
    intros x [<-|[<-|[]]]; simpl; (split; [eexists; eassumption | split; [exact Hl2 | reflexivity]]). }
  destruct (get_or_insert s2 lvl ch) as [s3 h] eqn:Eg.
  destruct (get_or_insert_wf s2 lvl ch s3 h H2 (mt_kary s2 B2) Hl2 Hch Hae Eg) as [W [X [O3 [_ [_ Sh]]]]].
  exists lvl, s3, (eref h). split; [reflexivity|]. split; [reflexivity|].
  split; [apply (mtok_extends s2 s3 B2 X W)|].
  split; [eapply mext_trans; [exact X1|]; eapply mext_trans; [exact X2 | apply mext_of_extends; exact X]|].
  split; [exact O3|]. intros c Hc. pose proof (Hc lvl) as Hc2.
  destruct (c lvl) as [|[|k]] eqn:Ec; [| |lia].
  - rewrite (Sh c 0 (E (RT t1)) Ec eq_refl). simpl. rewrite semk_T. exact V1.
  - rewrite (Sh c 1 (E (RT t0)) Ec eq_refl). simpl. rewrite semk_T. exact V0.
Qed.

(** ** Evaluation *)

Theorem mt_eval_walk_sem : forall s, WF s -> forall fuel r ch,
  mt_eval_walk fuel s r ch =
  option_map t_decode (semk s fuel r (fun l => if ch l then 1 else 0)).
Proof.
  intros s H. induction fuel as [|n IH]; intros r ch.
  - destruct r as [t|id]; simpl; [|reflexivity].
    rewrite semk_T. destruct (term_val s t); reflexivity.
  - destruct r as [t|id]; simpl mt_eval_walk.
    + rewrite semk_T. destruct (term_val s t); reflexivity.
    + rewrite semk_S. destruct (find_node s id) as [nd|] eqn:En; [|reflexivity].
      rewrite (wf_stored s H id nd En).
      destruct (ch (nlevel nd));
        (destruct (nth_error (nchildren nd) _) as [e|]; [apply IH | reflexivity]).
Qed.

(** value of [r] under [c0]: [semk] with the standard fuel, as a terminal value *)
Definition mvalue (s : snap) (r : ref) (c0 : nat -> nat) (x : tV) : Prop :=
  semk s (FUEL s) r c0 = Some (t_code x).

Lemma mvalue_fun : forall s r c0 x y, mvalue s r c0 x -> mvalue s r c0 y -> x = y.
Proof. intros s r c0 x y A B. unfold mvalue in *. apply code_inj. congruence. Qed.

Lemma mvalue_wf : forall s r c0 x, MtOK s -> mvalue s r c0 x -> twf x.
Proof.
  intros s r c0 x B V. destruct (semk_is_term s _ _ _ _ V) as [t E].
  rewrite <- (t_decode_code x). apply (mo_vals s B t _ E).
Qed.

Theorem mt_canonical : forall s r1 r2, MtOK s -> ref_ok s r1 -> ref_ok s r2 ->
  (forall c0, bchoice c0 -> semk s (FUEL s) r1 c0 = semk s (FUEL s) r2 c0) -> r1 = r2.
Proof.
  intros s r1 r2 B O1 O2 Hs.
  destruct (denm_exists s r1 B O1) as [phi D1].
  apply (denm_canon s r1 r2 phi B D1). split; [exact O2|].
  intros c0 Hc. unfold FUEL in Hs. rewrite <- (Hs c0 Hc). apply (proj2 D1 c0 Hc).
Qed.

(** the function of a reference in terms of assignments (variable |-> bool)
    under the table's variable order ([choice_of], DD/ApplyEvalProofs.v) *)
Definition mfun_of (s : snap) (r : ref) : asg -> tV :=
  fun a => match semk s (FUEL s) r (choice_of s a) with Some n => t_decode n | None => t_nan end.

Lemma mfun_of_den : forall s r phi, DenM s r phi -> forall a, mfun_of s r a = phi (choice_of s a).
Proof.
  intros s r phi [_ D] a. unfold mfun_of, FUEL. rewrite (D _ (choice_of_bchoice s a)).
  apply t_decode_code.
Qed.

Theorem mt_eval_sem : forall s r args, MtOK s -> ref_ok s r ->
  exists x, mt_eval s r args = Some x /\
    mvalue s r (fun l => if choices_of s args (fun _ => false) l then 1 else 0) x.
Proof.
  intros s r args B Hok. unfold mt_eval. rewrite (mt_eval_walk_sem s (mo_wf s B)).
  destruct (denm_exists s r B Hok) as [phi D].
  set (c := fun l => if choices_of s args (fun _ => false) l then 1 else 0).
  assert (Hc : bchoice c) by (intros l; unfold c; destruct (choices_of s args _ l); lia).
  exists (phi c). unfold mvalue, FUEL. rewrite (proj2 D c Hc). split; [|reflexivity].
  simpl. rewrite t_decode_code. reflexivity.
Qed.

(** for an argument list that gives every variable its value under [a],
    [eval] returns the value of the reference's function at [a] *)
Theorem mt_eval_assignment : forall s r (a : asg) args, MtOK s -> ref_ok s r ->
  (forall v b, In (v, b) args -> b = a v /\ v < nlevels s) ->
  (forall v, v < nlevels s -> In v (map fst args)) ->
  mt_eval s r args = Some (mfun_of s r a).
Proof.
  intros s r a args B Hok Hcons Hall. pose proof (mo_wf s B) as H.
  destruct (mt_eval_sem s r args B Hok) as [x [E V]]. rewrite E. f_equal.
  destruct (denm_exists s r B Hok) as [phi D]. rewrite (mfun_of_den s r phi D).
  set (c := fun l => if choices_of s args (fun _ => false) l then 1 else 0) in *.
  assert (Hc : bchoice c) by (intros l; unfold c; destruct (choices_of s args _ l); lia).
  apply (mvalue_fun s r c); [exact V|]. unfold mvalue, FUEL.
  rewrite (proj2 D c Hc). do 2 f_equal.
  apply (denm_indep s r phi H D c (choice_of s a) Hc (choice_of_bchoice s a)).
  intros l _. apply (choices_of_assignment s a args H Hcons Hall).
Qed.

(** ** The theorems in terms of [semk] only *)

Section Top.
Variable gt : ref -> ref -> bool.
Variable C : Type.
Variable cget : C -> N -> list ref -> option ref.
Variable cadd : C -> N -> list ref -> ref -> C.
Hypothesis Hlossy : lossy cget cadd.

Theorem mt_apply_bin_sound : forall op fuel s c f g,
  MtOK s -> MCacheOK cget s c -> ref_ok s f -> ref_ok s g -> FUEL s <= fuel ->
  exists s' c' r, mt_apply_bin gt C cget cadd fuel s c op f g = Some (s', c', r) /\
    MtOK s' /\ mext s s' /\ MCacheOK cget s' c' /\ ref_ok s' r /\
    forall c0, bchoice c0 -> exists x y,
      mvalue s f c0 x /\ mvalue s g c0 y /\ mvalue s' r c0 (mop_eval op x y).
Proof.
  intros op fuel s c f g B O Hf Hg Hfuel.
  destruct (denm_exists s f B Hf) as [phi Df]. destruct (denm_exists s g B Hg) as [psi Dg].
  unfold FUEL in Hfuel.
  destruct (mt_apply_bin_ok gt C cget cadd Hlossy op fuel s c f g phi psi B O Df Dg ltac:(lia))
    as [s' [c' [r [E [B' [X [O' [D' _]]]]]]]].
  exists s', c', r. repeat (split; [assumption|]). split; [apply (proj1 D')|].
  intros c0 Hc. exists (phi c0), (psi c0).
  split; [apply (proj2 Df c0 Hc)|]. split; [apply (proj2 Dg c0 Hc) | apply (proj2 D' c0 Hc)].
Qed.

Theorem mt_apply_bin_nan : forall op fuel s c f g s' c' r,
  MtOK s -> MCacheOK cget s c -> ref_ok s f -> ref_ok s g -> FUEL s <= fuel ->
  mt_apply_bin gt C cget cadd fuel s c op f g = Some (s', c', r) ->
  forall c0, bchoice c0 -> (mvalue s f c0 t_nan \/ mvalue s g c0 t_nan) -> mvalue s' r c0 t_nan.
Proof.
  intros op fuel s c f g s' c' r B O Hf Hg Hfuel E c0 Hc Hn.
  destruct (mt_apply_bin_sound op fuel s c f g B O Hf Hg Hfuel) as (s1 & c1 & r1 & E1 & _ & _ & _ & _ & P).
  rewrite E in E1. inversion E1; subst s1 c1 r1.
  destruct (P c0 Hc) as (x & y & Vx & Vy & Vr).
  assert (Hnan : t_is_nan t_nan = true) by (apply t_is_nan_spec; reflexivity).
  assert (En : mop_eval op x y = t_nan).
  { destruct Hn as [Hn|Hn].
    - rewrite (mvalue_fun s f c0 x t_nan Vx Hn). apply (mop_eval_nan op t_nan y Hnan (mvalue_wf s g c0 y B Vy)).
    - rewrite (mvalue_fun s g c0 y t_nan Vy Hn). apply (mop_eval_nan op t_nan x Hnan (mvalue_wf s f c0 x B Vx)). }
  rewrite En in Vr. exact Vr.
Qed.

Theorem mt_apply_ite_sound : forall fuel s c f g h,
  MtOK s -> MCacheOK cget s c -> ref_ok s f -> ref_ok s g -> ref_ok s h -> FUEL s <= fuel ->
  exists s' c' r, mt_apply_ite C cget cadd fuel s c f g h = Some (s', c', r) /\
    MtOK s' /\ mext s s' /\ MCacheOK cget s' c' /\ ref_ok s' r /\
    forall c0, bchoice c0 -> exists x y z,
      mvalue s f c0 x /\ mvalue s g c0 y /\ mvalue s h c0 z /\
      mvalue s' r c0 (if t_is_zero x then z else y).
Proof.
  intros fuel s c f g h B O Hf Hg Hh Hfuel.
  destruct (denm_exists s f B Hf) as [phi Df]. destruct (denm_exists s g B Hg) as [psi Dg].
  destruct (denm_exists s h B Hh) as [theta Dh]. unfold FUEL in Hfuel.
  destruct (mt_apply_ite_ok C cget cadd Hlossy fuel s c f g h phi psi theta B O Df Dg Dh ltac:(lia))
    as [s' [c' [r [E [B' [X [O' [D' _]]]]]]]].
  exists s', c', r. repeat (split; [assumption|]). split; [apply (proj1 D')|].
  intros c0 Hc. exists (phi c0), (psi c0), (theta c0).
  split; [apply (proj2 Df c0 Hc)|]. split; [apply (proj2 Dg c0 Hc)|].
  split; [apply (proj2 Dh c0 Hc) | apply (proj2 D' c0 Hc)].
Qed.

Theorem mt_restrict_sound : forall fuel s c f vars lits,
  MtOK s -> MCacheOK cget s c -> ref_ok s f -> Cube s vars lits -> FUEL s <= fuel ->
  exists s' c' r, mt_restrict C cget cadd fuel s c f vars = Some (s', c', r) /\
    MtOK s' /\ mext s s' /\ MCacheOK cget s' c' /\ ref_ok s' r /\
    forall c0, bchoice c0 -> exists x,
      mvalue s f (ovr lits c0) x /\ mvalue s' r c0 x.
Proof.
  intros fuel s c f vars lits B O Hf Hcube Hfuel.
  destruct (denm_exists s f B Hf) as [phi Df]. unfold FUEL in Hfuel.
  pose proof (rlevel_le s (mo_wf s B) f).
  destruct (mt_restrict_ok C cget cadd Hlossy fuel s c f vars phi lits B O Df Hcube ltac:(lia))
    as [s' [c' [r [E [B' [X [O' [D' _]]]]]]]].
  exists s', c', r. repeat (split; [assumption|]). split; [apply (proj1 D')|].
  intros c0 Hc. exists (phi (ovr lits c0)).
  split; [apply (proj2 Df _ (ovr_bchoice _ _ Hc)) | apply (proj2 D' c0 Hc)].
Qed.

(** in terms of assignments *)
Theorem mt_apply_bin_mfun : forall op s c f g,
  MtOK s -> MCacheOK cget s c -> ref_ok s f -> ref_ok s g ->
  exists s' c' r, mt_apply_bin gt C cget cadd (FUEL s) s c op f g = Some (s', c', r) /\
    MtOK s' /\ mext s s' /\ ref_ok s' r /\
    forall a, mfun_of s' r a = mop_eval op (mfun_of s f a) (mfun_of s g a).
Proof.
  intros op s c f g B O Hf Hg.
  destruct (denm_exists s f B Hf) as [phi Df]. destruct (denm_exists s g B Hg) as [psi Dg].
  destruct (mt_apply_bin_ok gt C cget cadd Hlossy op (FUEL s) s c f g phi psi B O Df Dg
              ltac:(unfold FUEL; lia)) as [s' [c' [r [E [B' [X [_ [D' _]]]]]]]].
  exists s', c', r. split; [exact E|]. split; [exact B'|]. split; [exact X|]. split; [apply (proj1 D')|].
  intros a. rewrite (mfun_of_den s' r _ D'), (mfun_of_den s f phi Df), (mfun_of_den s g psi Dg).
  unfold choice_of. rewrite (mx_l2v _ _ X). reflexivity.
Qed.

End Top.

Theorem mt_var_mfun : forall s v, MtOK s -> v < nlevels s ->
  exists s' r, mt_var s v = Some (s', r) /\ MtOK s' /\ mext s s' /\ ref_ok s' r /\
    forall a, mfun_of s' r a = if a v then t_one else t_zero.
Proof.
  intros s v B Hv.
  destruct (mt_var_ok s v B Hv) as [lvl [s' [r [E1 [Em [B' [X D]]]]]]].
  exists s', r. split; [exact Em|]. split; [exact B'|]. split; [exact X|]. split; [apply (proj1 D)|].
  intros a. rewrite (mfun_of_den s' r _ D). unfold choice_of.
  pose proof (mo_wf s B) as H.
  assert (Hv' : v < length (s_v2l s)) by (rewrite (wf_perm_len s H); exact Hv).
  destruct (wf_perm_v2l s H v Hv') as [lvl' [F1 F2]]. rewrite E1 in F1. inversion F1; subst lvl'.
  rewrite (mx_l2v _ _ X), F2. destruct (a v); reflexivity.
Qed.

Theorem mt_const_mfun : forall s v s' r, MtOK s -> twf v -> mt_const s v = (s', r) ->
  MtOK s' /\ mext s s' /\ ref_ok s' r /\ forall a, mfun_of s' r a = v.
Proof.
  intros s v s' r B Hv E. destruct (mt_const_ok s v s' r B Hv E) as [B' [X [D _]]].
  split; [exact B'|]. split; [exact X|]. split; [apply (proj1 D)|].
  intros a. apply (mfun_of_den s' r _ D).
Qed.

(** ** The returned handle does not depend on the cache or on history *)

Section Transparent.
(** two arbitrary cache implementations and operand orders *)
Variables gt1 gt2 : ref -> ref -> bool.
Variables C1 C2 : Type.
Variable cget1 : C1 -> N -> list ref -> option ref.
Variable cadd1 : C1 -> N -> list ref -> ref -> C1.
Variable cget2 : C2 -> N -> list ref -> option ref.
Variable cadd2 : C2 -> N -> list ref -> ref -> C2.
Hypothesis L1 : lossy cget1 cadd1.
Hypothesis L2 : lossy cget2 cadd2.

(** (a) whatever the two caches contain (as long as it is correct), the two
    results denote the same function *)
Theorem mt_apply_bin_cache_transparent : forall op s c1 c2 f g fuel1 fuel2 s1 c1' r1 s2 c2' r2,
  MtOK s -> MCacheOK cget1 s c1 -> MCacheOK cget2 s c2 -> ref_ok s f -> ref_ok s g ->
  FUEL s <= fuel1 -> FUEL s <= fuel2 ->
  mt_apply_bin gt1 C1 cget1 cadd1 fuel1 s c1 op f g = Some (s1, c1', r1) ->
  mt_apply_bin gt2 C2 cget2 cadd2 fuel2 s c2 op f g = Some (s2, c2', r2) ->
  forall c0, bchoice c0 -> semk s1 (FUEL s1) r1 c0 = semk s2 (FUEL s2) r2 c0.
Proof.
  intros op s c1 c2 f g fuel1 fuel2 s1 c1' r1 s2 c2' r2 B O1 O2 Hf Hg F1 F2 E1 E2 c0 Hc.
  destruct (denm_exists s f B Hf) as [phi Df]. destruct (denm_exists s g B Hg) as [psi Dg].
  unfold FUEL in F1, F2.
  destruct (mt_apply_bin_ok gt1 C1 cget1 cadd1 L1 op fuel1 s c1 f g phi psi B O1 Df Dg ltac:(lia))
    as [sa [ca [ra [Ea [_ [_ [_ [Da _]]]]]]]].
  destruct (mt_apply_bin_ok gt2 C2 cget2 cadd2 L2 op fuel2 s c2 f g phi psi B O2 Df Dg ltac:(lia))
    as [sb [cb [rb [Eb [_ [_ [_ [Db _]]]]]]]].
  rewrite E1 in Ea. rewrite E2 in Eb. inversion Ea; subst. inversion Eb; subst.
  unfold FUEL. rewrite (proj2 Da c0 Hc), (proj2 Db c0 Hc). reflexivity.
Qed.

(** a result obtained once is obtained again in any later table, whatever
    the cache: the reference it returned denotes the result function there,
    so the second run returns it and leaves the table alone *)
Lemma mresult_ok_again : forall s c1 res1 (Phi : mfun) s1 c1' r1 s2 c2 res2,
  mresult_ok C1 cget1 s c1 res1 Phi -> res1 = Some (s1, c1', r1) -> mext s1 s2 ->
  (mext s s2 -> mresult_ok C2 cget2 s2 c2 res2 Phi) ->
  exists c2', res2 = Some (s2, c2', r1).
Proof.
  intros s c1 res1 Phi s1 c1' r1 s2 c2 res2 (sa & ca & ra & Ea & Ba & Xa & _ & Da & _) E1 X R2.
  rewrite E1 in Ea. inversion Ea; subst sa ca ra.
  destruct (R2 (mext_trans _ _ _ Xa X)) as (sb & cb & rb & Eb & _ & _ & _ & _ & Sb).
  destruct (Sb r1 (denm_mext s1 s2 _ _ Ba X Da)) as [-> ->]. exists cb. exact Eb.
Qed.

(** (b) repeating the operation in any later state of the same table (more
    nodes and terminals, any correct cache of any implementation, any operand
    order) returns the identical reference and leaves the table unchanged *)
Theorem mt_apply_bin_history_independent : forall op s c1 f g fuel1 s1 c1' r1,
  MtOK s -> MCacheOK cget1 s c1 -> ref_ok s f -> ref_ok s g -> FUEL s <= fuel1 ->
  mt_apply_bin gt1 C1 cget1 cadd1 fuel1 s c1 op f g = Some (s1, c1', r1) ->
  forall s2 c2 fuel2, MtOK s2 -> mext s1 s2 -> MCacheOK cget2 s2 c2 -> FUEL s2 <= fuel2 ->
  exists c2', mt_apply_bin gt2 C2 cget2 cadd2 fuel2 s2 c2 op f g = Some (s2, c2', r1).
Proof.
  intros op s c1 f g fuel1 s1 c1' r1 B O1 Hf Hg F1 E1 s2 c2 fuel2 B2 X O2 F2.
  destruct (denm_exists s f B Hf) as [phi Df]. destruct (denm_exists s g B Hg) as [psi Dg].
  unfold FUEL in F1, F2.
  apply (mresult_ok_again s c1 _ (fun c0 => mop_eval op (phi c0) (psi c0)) s1 c1' r1 s2 c2 _
           (mt_apply_bin_ok gt1 C1 cget1 cadd1 L1 op fuel1 s c1 f g phi psi B O1 Df Dg ltac:(lia)) E1 X).
  intros X02.
  apply (mt_apply_bin_ok gt2 C2 cget2 cadd2 L2 op fuel2 s2 c2 f g phi psi B2 O2
           (denm_mext s s2 _ _ B X02 Df) (denm_mext s s2 _ _ B X02 Dg)). lia.
Qed.

Theorem mt_apply_ite_history_independent : forall s c1 f g h fuel1 s1 c1' r1,
  MtOK s -> MCacheOK cget1 s c1 -> ref_ok s f -> ref_ok s g -> ref_ok s h -> FUEL s <= fuel1 ->
  mt_apply_ite C1 cget1 cadd1 fuel1 s c1 f g h = Some (s1, c1', r1) ->
  forall s2 c2 fuel2, MtOK s2 -> mext s1 s2 -> MCacheOK cget2 s2 c2 -> FUEL s2 <= fuel2 ->
  exists c2', mt_apply_ite C2 cget2 cadd2 fuel2 s2 c2 f g h = Some (s2, c2', r1).
Proof.
  intros s c1 f g h fuel1 s1 c1' r1 B O1 Hf Hg Hh F1 E1 s2 c2 fuel2 B2 X O2 F2.
  destruct (denm_exists s f B Hf) as [phi Df]. destruct (denm_exists s g B Hg) as [psi Dg].
  destruct (denm_exists s h B Hh) as [theta Dh]. unfold FUEL in F1, F2.
  apply (mresult_ok_again s c1 _ (fun c0 => if t_is_zero (phi c0) then theta c0 else psi c0) s1 c1' r1 s2 c2 _
           (mt_apply_ite_ok C1 cget1 cadd1 L1 fuel1 s c1 f g h phi psi theta B O1 Df Dg Dh ltac:(lia)) E1 X).
  intros X02.
  apply (mt_apply_ite_ok C2 cget2 cadd2 L2 fuel2 s2 c2 f g h phi psi theta B2 O2
           (denm_mext s s2 _ _ B X02 Df) (denm_mext s s2 _ _ B X02 Dg) (denm_mext s s2 _ _ B X02 Dh)). lia.
Qed.

Theorem mt_restrict_history_independent : forall s c1 f vars lits fuel1 s1 c1' r1,
  MtOK s -> MCacheOK cget1 s c1 -> ref_ok s f -> Cube s vars lits -> FUEL s <= fuel1 ->
  mt_restrict C1 cget1 cadd1 fuel1 s c1 f vars = Some (s1, c1', r1) ->
  forall s2 c2 fuel2, MtOK s2 -> mext s1 s2 -> MCacheOK cget2 s2 c2 -> FUEL s2 <= fuel2 ->
  exists c2', mt_restrict C2 cget2 cadd2 fuel2 s2 c2 f vars = Some (s2, c2', r1).
Proof.
  intros s c1 f vars lits fuel1 s1 c1' r1 B O1 Hf Hcube F1 E1 s2 c2 fuel2 B2 X O2 F2.
  destruct (denm_exists s f B Hf) as [phi Df]. unfold FUEL in F1, F2.
  pose proof (rlevel_le s (mo_wf s B) f). pose proof (rlevel_le s2 (mo_wf s2 B2) f).
  apply (mresult_ok_again s c1 _ (fun c0 => phi (ovr lits c0)) s1 c1' r1 s2 c2 _
           (mt_restrict_ok C1 cget1 cadd1 L1 fuel1 s c1 f vars phi lits B O1 Df Hcube ltac:(lia)) E1 X).
  intros X02.
  apply (mt_restrict_ok C2 cget2 cadd2 L2 fuel2 s2 c2 f vars phi lits B2 O2
           (denm_mext s s2 _ _ B X02 Df) (cube_mext s s2 _ _ X02 Hcube)). lia.
Qed.

End Transparent.

(** (c) in its result table the returned reference is THE reference with the
    result's meaning *)
Theorem mt_apply_bin_result_unique : forall gt C cget cadd, lossy cget cadd ->
  forall op fuel s (c : C) f g s' c' r,
  MtOK s -> MCacheOK cget s c -> ref_ok s f -> ref_ok s g -> FUEL s <= fuel ->
  mt_apply_bin gt C cget cadd fuel s c op f g = Some (s', c', r) ->
  forall r0, ref_ok s' r0 ->
    (forall c0, bchoice c0 -> exists x y,
        mvalue s f c0 x /\ mvalue s g c0 y /\ mvalue s' r0 c0 (mop_eval op x y)) ->
    r0 = r.
Proof.
  intros gt C cget cadd L op fuel s c f g s' c' r B O Hf Hg F E r0 H0 Hsem.
  destruct (denm_exists s f B Hf) as [phi Df]. destruct (denm_exists s g B Hg) as [psi Dg].
  unfold FUEL in F.
  destruct (mt_apply_bin_ok gt C cget cadd L op fuel s c f g phi psi B O Df Dg ltac:(lia))
    as [sa [ca [ra [Ea [Ba [_ [_ [Da _]]]]]]]].
  rewrite E in Ea. inversion Ea; subst sa ca ra.
  apply (denm_canon s' r0 r (fun c0 => mop_eval op (phi c0) (psi c0)) Ba); [|exact Da].
  split; [exact H0|]. intros c0 Hc. destruct (Hsem c0 Hc) as [x [y [Vx [Vy V0]]]].
  rewrite (mvalue_fun s f c0 _ _ (proj2 Df c0 Hc) Vx), (mvalue_fun s g c0 _ _ (proj2 Dg c0 Hc) Vy).
  exact V0.
Qed.

(** ** Cubes *)

(** all literals hold under a choice (child 0 = variable true) *)
Definition lits_hold (lits : list (nat * bool)) (c : nat -> nat) : bool :=
  forallb (fun p : nat * bool => Nat.eqb (c (fst p)) (if snd p then 0 else 1)) lits.

Lemma denm_node : forall s id nd a b P0 P1, WF s -> find_node s id = Some nd ->
  nchildren nd = [a; b] -> DenM s (eref a) P0 -> DenM s (eref b) P1 ->
  DenM s (RN id) (fun c => if Nat.eqb (c (nlevel nd)) 0 then P0 c else P1 c).
Proof.
  intros s id nd a b P0 P1 H En Ech [_ D0] [_ D1]. split; [exists nd; exact En|].
  intros c Hc. pose proof (Hc (nlevel nd)) as Hc2.
  change (semk s (S (nlevels s)) (RN id) c) with (semn s (RN id) c).
  destruct (c (nlevel nd)) as [|[|k]] eqn:Ec; [| |lia].
  - rewrite (semn_node s H id nd a c En) by (rewrite Ec, Ech; reflexivity). apply (D0 c Hc).
  - rewrite (semn_node s H id nd b c En) by (rewrite Ec, Ech; reflexivity). apply (D1 c Hc).
Qed.

(** a cube denotes the product of its literals: 1 where all hold, 0 elsewhere *)
Theorem cube_den : forall s r lits, MtOK s -> Cube s r lits ->
  DenM s r (fun c => if lits_hold lits c then t_one else t_zero).
Proof.
  intros s r lits B Hc. pose proof (mo_wf s B) as H.
  induction Hc as [t Et | id nd rest t0 lits En Ech Et Hr IH | id nd rest t0 lits En Ech Et Hr IH].
  - apply (denm_ext s (RT t) (fun _ => t_one)); [apply denm_term; exact Et | reflexivity].
  - apply (denm_ext _ _ _ _ (denm_node s id nd _ _ _ _ H En Ech IH (denm_term s t0 t_zero Et))).
    intros c _. simpl lits_hold. destruct (Nat.eqb (c (nlevel nd)) 0); reflexivity.
  - apply (denm_ext _ _ _ _ (denm_node s id nd _ _ _ _ H En Ech (denm_term s t0 t_zero Et) IH)).
    intros c Hc. simpl lits_hold. pose proof (Hc (nlevel nd)).
    destruct (c (nlevel nd)) as [|[|k]]; [reflexivity | reflexivity | lia].
Qed.

(** the checker establishes [Cube] *)
Theorem cube_lits_sound : forall s, MtOK s -> forall fuel r lits,
  cube_lits fuel s r = Some lits -> Cube s r lits.
Proof.
  intros s B. pose proof (mo_wf s B) as H.
  assert (Hnb : s_kind s <> KBcdd) by (rewrite (mo_kind s B); discriminate).
  assert (Zero : forall e : edge, etag e = false ->
            match eref e with
            | RT t => match term_val s t with Some c => t_is_zero (t_decode c) | None => false end
            | RN _ => false
            end = true ->
            exists t0, e = E (RT t0) /\ term_val s t0 = Some (t_code t_zero)).
  { intros [[t|id] tag] Htag Hz; simpl in Htag, Hz; [|discriminate]. subst tag.
    destruct (term_val s t) as [c|] eqn:Et; [|discriminate].
    apply t_is_zero_spec in Hz. exists t. split; [reflexivity|].
    rewrite Et, <- (t_code_decode c), Hz. reflexivity. }
  (* a terminal is looked at without fuel *)
  assert (One : forall fuel t lits, cube_lits fuel s (RT t) = Some lits -> Cube s (RT t) lits).
  { intros fuel t lits E.
    assert (E' : match term_val s t with
                 | Some c => if t_is_one (t_decode c) then Some [] else None
                 | None => None
                 end = Some lits) by (destruct fuel; exact E).
    destruct (term_val s t) as [c|] eqn:Et; [|discriminate].
    destruct (t_is_one (t_decode c)) eqn:E1; [|discriminate]. inversion E'; subst.
    apply CubeOne. apply t_is_one_spec in E1. rewrite <- E1, t_code_decode. exact Et. }
  induction fuel as [|n IH]; intros [t|id] lits E; try (apply (One _ t lits E)); [discriminate|].
  simpl in E.
  destruct (find_node s id) as [nd|] eqn:En; [|discriminate].
  destruct (nchildren nd) as [|a [|b [|x rest]]] eqn:Ech; try discriminate.
  assert (Ta : etag a = false) by (apply (wf_tags s H Hnb id nd a En); rewrite Ech; simpl; auto).
  assert (Tb : etag b = false) by (apply (wf_tags s H Hnb id nd b En); rewrite Ech; simpl; auto).
  match type of E with (if ?zb then _ else _) = _ => destruct zb eqn:Zb end.
  - destruct (cube_lits n s (eref a)) as [l|] eqn:El; [|discriminate]. inversion E; subst.
    destruct (Zero b Tb Zb) as [t0 [-> Et0]].
    apply (CubePos s id nd (eref a) t0 l En); [|exact Et0 | apply IH; exact El].
    rewrite Ech. f_equal. destruct a as [ra ta]. simpl in Ta. subst ta. reflexivity.
  - match type of E with (if ?za then _ else _) = _ => destruct za eqn:Za end; [|discriminate].
    destruct (cube_lits n s (eref b)) as [l|] eqn:El; [|discriminate]. inversion E; subst.
    destruct (Zero a Ta Za) as [t0 [-> Et0]].
    apply (CubeNeg s id nd (eref b) t0 l En); [|exact Et0 | apply IH; exact El].
    rewrite Ech. f_equal. destruct b as [rb tb]. simpl in Tb. subst tb. reflexivity.
Qed.

(** ** restrict in terms of assignments *)

(** the assignment [a] with the variables of the cube's literals forced
    (literal at level [l] = literal of the variable at that level) *)
Definition force_asg (s : snap) (lits : list (nat * bool)) (a : asg) : asg :=
  fun v => match nth_error (s_v2l s) v with
           | Some l => match assoc_nat lits l with Some b => b | None => a v end
           | None => a v
           end.

Lemma choice_of_force : forall s r lits a l, WF s -> Cube s r lits ->
  ovr lits (choice_of s a) l = choice_of s (force_asg s lits a) l.
Proof.
  intros s r lits a l H Hc. unfold choice_of at 2.
  destruct (nth_error (s_l2v s) l) as [v|] eqn:El.
  - assert (Hl : l < length (s_l2v s)) by (apply nth_error_Some; congruence).
    destruct (wf_perm_l2v s H l Hl) as [v' [E1 E2]]. rewrite El in E1. inversion E1; subst v'.
    unfold force_asg. rewrite E2. unfold ovr, choice_of. rewrite El.
    destruct (assoc_nat lits l) as [b|]; reflexivity.
  - assert (Hl : nlevels s <= l) by (apply nth_error_None in El; exact El).
    rewrite (cube_ovr_above s r lits _ l H Hc Hl). unfold choice_of. rewrite El. reflexivity.
Qed.

Section RestrictAsg.
Variable C : Type.
Variable cget : C -> N -> list ref -> option ref.
Variable cadd : C -> N -> list ref -> ref -> C.
Hypothesis Hlossy : lossy cget cadd.

Theorem mt_restrict_mfun : forall s c f vars lits,
  MtOK s -> MCacheOK cget s c -> ref_ok s f -> Cube s vars lits ->
  exists s' c' r, mt_restrict C cget cadd (FUEL s) s c f vars = Some (s', c', r) /\
    MtOK s' /\ mext s s' /\ ref_ok s' r /\
    forall a, mfun_of s' r a = mfun_of s f (force_asg s lits a).
Proof.
  intros s c f vars lits B O Hf Hcube. pose proof (mo_wf s B) as H.
  destruct (denm_exists s f B Hf) as [phi Df].
  pose proof (rlevel_le s H f).
  destruct (mt_restrict_ok C cget cadd Hlossy (FUEL s) s c f vars phi lits B O Df Hcube
              ltac:(unfold FUEL; lia)) as [s' [c' [r [E [B' [X [_ [D' _]]]]]]]].
  exists s', c', r. split; [exact E|]. split; [exact B'|]. split; [exact X|]. split; [apply (proj1 D')|].
  intros a. rewrite (mfun_of_den s' r _ D'), (mfun_of_den s f phi Df).
  assert (Ec : forall l, choice_of s' a l = choice_of s a l)
    by (intros l; unfold choice_of; rewrite (mx_l2v _ _ X); reflexivity).
  apply (denm_pointwise s f phi _ _ H Df).
  - apply ovr_bchoice. apply choice_of_bchoice.
  - apply choice_of_bchoice.
  - intros l. rewrite <- (choice_of_force s vars lits a l H Hcube).
    unfold ovr. rewrite Ec. reflexivity.
Qed.

End RestrictAsg.

Theorem mt_apply_ite_mfun : forall (C : Type) cget cadd, lossy cget cadd ->
  forall s (c : C) f g h,
  MtOK s -> MCacheOK cget s c -> ref_ok s f -> ref_ok s g -> ref_ok s h ->
  exists s' c' r, mt_apply_ite C cget cadd (FUEL s) s c f g h = Some (s', c', r) /\
    MtOK s' /\ mext s s' /\ ref_ok s' r /\
    forall a, mfun_of s' r a =
      if t_is_zero (mfun_of s f a) then mfun_of s h a else mfun_of s g a.
Proof.
  intros C cget cadd L s c f g h B O Hf Hg Hh.
  destruct (denm_exists s f B Hf) as [phi Df]. destruct (denm_exists s g B Hg) as [psi Dg].
  destruct (denm_exists s h B Hh) as [theta Dh].
  destruct (mt_apply_ite_ok C cget cadd L (FUEL s) s c f g h phi psi theta B O Df Dg Dh
              ltac:(unfold FUEL; lia)) as [s' [c' [r [E [B' [X [_ [D' _]]]]]]]].
  exists s', c', r. split; [exact E|]. split; [exact B'|]. split; [exact X|]. split; [apply (proj1 D')|].
  intros a. rewrite (mfun_of_den s' r _ D'), (mfun_of_den s f phi Df), (mfun_of_den s g psi Dg),
    (mfun_of_den s h theta Dh).
  unfold choice_of. rewrite (mx_l2v _ _ X). reflexivity.
Qed.

End TG.
