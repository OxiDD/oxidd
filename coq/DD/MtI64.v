(** * The integer terminal type [I64] (terminal/i64.rs, Num/I64.v) as an
      instance of the generic function-level development (DD/MtG*.v)

    [i64_laws]: every scalar law of [tlaws] holds for [I64] - without axioms.
    So the generic theorems ([MtGProofs.mt_apply_bin_ok], ...) also cover
    MTBDD<I64>; DD/ApplyMtbdd*.v is the development the MTBDD<I64> traces
    are replayed against, and takes its theorems from the generic ones
    (DD/ApplyMtbddGen.v).  ([i64_alg] is a plain definition, not registered as
    a class instance.) *)

From Coq Require Import List NArith ZArith PArith Bool Arith Lia.
From OxiVerif Require Import DD.Table Num.I64 Num.I64Proofs DD.ApplyMtbdd DD.ApplyMtbddCode.
From OxiVerif Require DD.MtG DD.MtGBase.

Definition i64_alg : MtG.talg := {|
  MtG.tV := i64v;
  MtG.t_code := code;
  MtG.t_decode := decode;
  MtG.t_zero := i64_zero;
  MtG.t_one := i64_one;
  MtG.t_nan := i64_nan;
  MtG.t_add := i64_add;
  MtG.t_sub := i64_sub;
  MtG.t_mul := i64_mul;
  MtG.t_div := i64_div;
  MtG.t_cmp := i64_partial_cmp;
  MtG.t_is_zero := i64_is_zero;
  MtG.t_is_one := i64_is_one;
  MtG.t_is_nan := i64_is_nan;
  MtG.t_wfb := wfb
|}.

(** the generic min / max at [i64_alg] are [i64_min] / [i64_max] *)
Lemma i64_alg_min : forall a b, MtG.t_min (TA := i64_alg) a b = i64_min a b.
Proof. reflexivity. Qed.
Lemma i64_alg_max : forall a b, MtG.t_max (TA := i64_alg) a b = i64_max a b.
Proof. reflexivity. Qed.

Theorem i64_laws : MtGBase.tlaws i64_alg.
Proof.
  assert (W : forall a : i64v, MtGBase.twf (A := i64_alg) a <-> wf a) by (intros a; apply wfb_true).
  constructor; cbn [MtG.tV MtG.t_code MtG.t_decode MtG.t_zero MtG.t_one MtG.t_nan MtG.t_add MtG.t_sub
                    MtG.t_mul MtG.t_div MtG.t_cmp MtG.t_is_zero MtG.t_is_one MtG.t_is_nan i64_alg].
  - exact decode_code.
  - exact code_decode.
  - exact i64_is_zero_spec.
  - exact i64_is_one_spec.
  - exact i64_is_nan_spec.
  - discriminate.
  - reflexivity.
  - reflexivity.
  - reflexivity.
  - intros a b Ha Hb. apply W. apply i64_add_wf; apply W; assumption.
  - intros a b Ha Hb. apply W. apply i64_sub_wf; apply W; assumption.
  - intros a b Ha Hb. apply W. apply i64_mul_wf; apply W; assumption.
  - intros a b Ha Hb. apply W. apply i64_div_wf; apply W; assumption.
  - intros t x Ht Hx. apply i64_add_zero_l; [exact Ht | apply W; exact Hx].
  - intros t x Ht Hx. apply i64_add_zero_r; [exact Ht | apply W; exact Hx].
  - intros t x Ht Hx. apply i64_sub_zero_r; [exact Ht | apply W; exact Hx].
  - intros t x Ht Hx. apply i64_mul_one_l; [exact Ht | apply W; exact Hx].
  - intros t x Ht Hx. apply i64_mul_one_r; [exact Ht | apply W; exact Hx].
  - intros t x Ht Hx. apply i64_div_one_r; [exact Ht | apply W; exact Hx].
  - intros t x Ht _. rewrite !i64_alg_min, !i64_alg_max. apply (i64_nan_absorbing t x Ht).
  - intros a b _ _. apply i64_add_comm.
  - intros a b _ _. apply i64_mul_comm.
  - intros a b _ _. rewrite !i64_alg_min. apply i64_min_comm.
  - intros a b _ _. rewrite !i64_alg_max. apply i64_max_comm.
  - intros a _. rewrite i64_alg_min. apply i64_min_idem.
  - intros a _. rewrite i64_alg_max. apply i64_max_idem.
Qed.
