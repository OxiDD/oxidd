(** * Cube picking on BCDDs: the hypotheses of DD/PickProofs.v for [view_bcdd]

    [OK] is [BcddOK]: a well-formed BCDD table with its single terminal;
    [good s e]: the edge points to something stored (any tag);
    [den s e] is [fun_bcdd s e] (DD/SatCount.v, i.e. [semc]). *)

From Coq Require Import List NArith PArith Bool Arith Lia FMapPositive.
From OxiVerif Require Import DD.Table DD.TableProofs DD.Canon DD.CanonBcdd DD.Build DD.BuildProofs
  DD.SatCount DD.SatCountProofs DD.SatBcddSatProofs DD.Pick DD.PickProofs DD.PickInsert.
Import ListNotations.

Arguments N.add : simpl never.
Arguments N.mul : simpl never.
Arguments N.pow : simpl never.

Record BcddOK (s : snap) : Prop := mkBcddOK {
  bc_wf : WF s;
  bc_kind : s_kind s = KBcdd;
  bc_term : length (s_terms s) = 1
}.

Lemma kind_eqb_eq : forall a b, kind_eqb a b = true <-> a = b.
Proof. intros [] []; simpl; split; intro E; try discriminate; reflexivity. Qed.

Theorem bcdd_ok_b_spec : forall s, bcdd_ok_b s = true <-> BcddOK s.
Proof.
  intros s. unfold bcdd_ok_b. rewrite !andb_true_iff, wf_b_spec, kind_eqb_eq, Nat.eqb_eq. split.
  - intros [[A B] C]. constructor; assumption.
  - intros [A B C]. auto.
Qed.

Definition good_bcdd (s : snap) (e : edge) : Prop := ref_ok s (eref e).
Definition den_bcdd (s : snap) (e : edge) : lasg -> bool := fun_bcdd s e.

Lemma bc_terms_kind : forall s, BcddOK s -> terms_kind s.
Proof. intros s B. unfold terms_kind. rewrite (bc_kind s B), (bc_term s B). lia. Qed.

Lemma bc_binary : forall s, BcddOK s -> binary (s_kind s).
Proof. intros s B. unfold binary. rewrite (bc_kind s B). discriminate. Qed.

Lemma bcdd_term_some : forall s, BcddOK s -> exists t v, bcdd_term s = Some t /\ term_val s t = Some v.
Proof.
  intros s B. pose proof (bc_term s B) as L. unfold bcdd_term, term_val.
  destruct (s_terms s) as [|[t v] [|]]; simpl in L; try discriminate.
  exists t, v. split; [reflexivity|]. simpl. rewrite N.eqb_refl. reflexivity.
Qed.

Lemma fun_bcdd_ext : forall s e a a', WF s -> (forall l, a l = a' l) -> fun_bcdd s e a = fun_bcdd s e a'.
Proof.
  intros s e a a' H Ha. unfold fun_bcdd. f_equal. apply (semc_ext s H). intros l _.
  unfold choice_of. rewrite Ha. reflexivity.
Qed.

Lemma fun_bcdd_term : forall s e t a, eref e = RT t -> fun_bcdd s e a = negb (etag e).
Proof. intros s e t a Er. unfold fun_bcdd. rewrite (semc_T _ _ _ _ t Er). reflexivity. Qed.

Lemma fun_bcdd_extends : forall s s' e a, WF s -> extends s s' -> ref_ok s (eref e) ->
  fun_bcdd s' e a = fun_bcdd s e a.
Proof.
  intros s s' e a H X Hok. unfold fun_bcdd.
  rewrite (ext_nlevels _ _ X), (semc_extends s s' H X _ _ _ Hok). reflexivity.
Qed.

Lemma bcdd_node_sat : forall s e id, BcddOK s -> ref_ok s (eref e) -> eref e = RN id ->
  exists a, fun_bcdd s e a = true.
Proof.
  intros s e id B Hok Er. rewrite Er in Hok. destruct Hok as [nd E].
  destruct (node_not_const_c s (bc_wf s B) (bc_kind s B) (bc_terms_kind s B) id (etag e) nd E) as [Hnz _].
  apply (cnt_witness (nlevels s) 0). rewrite <- (edge_eta e), Er. exact Hnz.
Qed.

(** ** The hypotheses *)

Lemma bcdd_OK_WF : forall s, BcddOK s -> WF s.
Proof. intros s B. apply (bc_wf s B). Qed.

Lemma bcdd_good_ref : forall s e, good_bcdd s e -> ref_ok s (eref e).
Proof. intros s e G. exact G. Qed.

Lemma bcdd_view_err : forall s e, BcddOK s -> good_bcdd s e -> view_bcdd s e <> CErr.
Proof.
  intros s e B Hok. unfold good_bcdd in Hok. unfold view_bcdd. destruct (eref e) as [t|id].
  - destruct Hok as [v Ev]. rewrite Ev. discriminate.
  - destruct Hok as [nd E]. rewrite E.
    destruct (two_children s id nd (bc_wf s B) (bc_binary s B) E) as [e0 [e1 Hc]]. rewrite Hc. discriminate.
Qed.

Lemma view_bcdd_term : forall s e b, view_bcdd s e = CTerm b ->
  exists t, eref e = RT t /\ b = negb (etag e).
Proof.
  intros s e b. unfold view_bcdd. destruct (eref e) as [t|id].
  - destruct (term_val s t); [|discriminate]. intros E. inversion E. eauto.
  - destruct (find_node s id) as [nd|]; [|discriminate].
    destruct (nchildren nd) as [|? [|? [|]]]; discriminate.
Qed.

Lemma view_bcdd_node : forall s e l t x, view_bcdd s e = CNode l t x ->
  exists id nd t0 x0, eref e = RN id /\ find_node s id = Some nd /\ nchildren nd = [t0; x0] /\
    l = nstored nd /\ t = retag (etag e) t0 /\ x = retag (etag e) x0.
Proof.
  intros s e l t x. unfold view_bcdd. destruct (eref e) as [t1|id].
  - destruct (term_val s t1); discriminate.
  - destruct (find_node s id) as [nd|] eqn:E; [|discriminate].
    destruct (nchildren nd) as [|a [|b [|]]] eqn:Hc; try discriminate.
    intros X. inversion X; subst. exists id, nd, a, b. auto 10.
Qed.

Lemma bcdd_view_term : forall s e b, BcddOK s -> good_bcdd s e -> view_bcdd s e = CTerm b ->
  rlevel s (eref e) = nlevels s /\ forall a, den_bcdd s e a = b.
Proof.
  intros s e b B G Ev. destruct (view_bcdd_term s e b Ev) as [t [Er ->]].
  rewrite Er. split; [reflexivity|]. intros a. apply (fun_bcdd_term s e t a Er).
Qed.

Lemma bcdd_view_node : forall s e l t x, BcddOK s -> good_bcdd s e -> view_bcdd s e = CNode l t x ->
  l = rlevel s (eref e) /\ l < nlevels s /\ good_bcdd s t /\ good_bcdd s x /\
  l < rlevel s (eref t) /\ l < rlevel s (eref x) /\
  (forall a, den_bcdd s e a = if a l then den_bcdd s t a else den_bcdd s x a) /\
  (exists a, den_bcdd s e a = true).
Proof.
  intros s e l t x B G Ev. pose proof (bc_wf s B) as H.
  destruct (view_bcdd_node s e l t x Ev) as [id [nd [t0 [x0 [Er [E [Hc [Hl [-> ->]]]]]]]]].
  rewrite (wf_stored s H id nd E) in Hl. subst l.
  destruct (node_children_ok s id nd t0 x0 H E Hc) as [Ct Cx].
  unfold good_bcdd, den_bcdd. simpl eref.
  split; [rewrite Er, (rlevel_node s id nd E); reflexivity|].
  split; [apply (wf_level s H id nd E)|].
  split; [apply Ct|]. split; [apply Cx|]. split; [apply Ct|]. split; [apply Cx|]. split.
  - intros a.
    rewrite (fun_bcdd_ext s e a (updb a (nlevel nd) (a (nlevel nd))) H).
    + rewrite <- (edge_eta e) at 1. rewrite Er.
      change (fun_bcdd s {| eref := RN id; etag := etag e |}) with (Fc s (RN id) (etag e)).
      rewrite (Fc_child s H id (etag e) nd t0 x0 a (a (nlevel nd)) E Hc).
      destruct (a (nlevel nd)); reflexivity.
    + intros l. unfold updb. destruct (Nat.eqb_spec l (nlevel nd)); congruence.
  - apply (bcdd_node_sat s e id B G Er).
Qed.

Lemma bcdd_den_indep : forall s e l a b, BcddOK s -> good_bcdd s e -> l < rlevel s (eref e) ->
  den_bcdd s e (updb a l b) = den_bcdd s e a.
Proof.
  intros s e l a b B G Hl. unfold den_bcdd. rewrite <- (edge_eta e).
  apply (Fc_indep s (bc_wf s B) (eref e) (etag e) l Hl).
Qed.

Lemma bcddok_extends : forall s s', BcddOK s -> extends s s' -> WF s' -> BcddOK s'.
Proof.
  intros s s' B X W. constructor; [exact W | rewrite (ext_kind _ _ X); apply (bc_kind s B) |
    rewrite (ext_terms _ _ X); apply (bc_term s B)].
Qed.

Lemma bcdd_den_extends : forall s s' e a, BcddOK s -> extends s s' -> good_bcdd s e ->
  den_bcdd s' e a = den_bcdd s e a.
Proof. intros s s' e a B X G. apply (fun_bcdd_extends s s' e a (bc_wf s B) X G). Qed.

Lemma all_same_two : forall a b : edge, all_same [a; b] -> a = b.
Proof. intros a b A. apply A; simpl; auto. Qed.

Lemma add_lit_bcdd_ok : forall s sub l c, BcddOK s -> good_bcdd s sub -> l < nlevels s ->
  l < rlevel s (eref sub) -> (exists a, den_bcdd s sub a = true) ->
  exists s' r, add_lit_bcdd s sub l c = Some (s', r) /\ BcddOK s' /\ extends s s' /\ good_bcdd s' r /\
    rlevel s' (eref r) = l /\ forall a, den_bcdd s' r a = Bool.eqb (a l) c && den_bcdd s sub a.
Proof.
  intros s sub l c B Gs Hl Hls [a0 Ha0]. pose proof (bc_wf s B) as H. pose proof (bc_kind s B) as Hk.
  unfold add_lit_bcdd. destruct (bcdd_term_some s B) as [tid [tv [Et Vt]]]. rewrite Et.
  (* sub is not the false terminal edge *)
  assert (Hnf : eref sub = RT tid -> etag sub = false).
  { intros Er. unfold den_bcdd in Ha0. rewrite (fun_bcdd_term s sub tid a0 Er) in Ha0.
    destruct (etag sub); [discriminate | reflexivity]. }
  assert (Hform : forall p : list edge * bool,
            (let '(children, tag) := p in
             let (s', r) := get_or_insert s l children in Some (s', mkEdge (eref r) tag)) =
            (let (s', r) := get_or_insert s l (fst p) in Some (s', mkEdge (eref r) (snd p))))
    by (intros [? ?]; reflexivity).
  rewrite Hform. clear Hform.
  set (T := mkEdge (RT tid) false).
  set (chtag := if c then (if etag sub then ([mkEdge (eref sub) false; T], true)
                           else ([sub; mkEdge (RT tid) true], false))
                else ([T; mkEdge (eref sub) (negb (etag sub))], true)).
  assert (HT : ref_ok s (RT tid) /\ l < rlevel s (RT tid)) by (split; [exists tv; exact Vt | exact Hl]).
  assert (Hlen : length (fst chtag) = arity (s_kind s))
    by (rewrite Hk; unfold chtag; destruct c; [destruct (etag sub)|]; reflexivity).
  assert (Hce : forall e, In e (fst chtag) -> ref_ok s (eref e) /\ l < rlevel s (eref e)).
  { intros e He. unfold chtag in He. destruct c; [destruct (etag sub)|]; simpl in He;
      destruct He as [<-|[<-|[]]]; simpl; auto. }
  assert (Hred : reduced s (fst chtag)).
  { unfold reduced. rewrite Hk. unfold chtag. destruct c; [destruct (etag sub) eqn:Ts|]; simpl.
    - split; [|eexists; split; reflexivity].
      intros A. apply all_same_two in A. inversion A as [Er]. specialize (Hnf Er). congruence.
    - split; [|exists sub; split; [reflexivity | exact Ts]].
      intros A. apply all_same_two in A. rewrite A in Ts. discriminate.
    - split; [|eexists; split; reflexivity].
      intros A. apply all_same_two in A. inversion A as [[Er Tg]]. symmetry in Er. specialize (Hnf Er).
      rewrite Hnf in Tg. discriminate. }
  assert (Htags : s_kind s <> KBcdd -> forall e, In e (fst chtag) -> etag e = false) by congruence.
  destruct (get_or_insert s l (fst chtag)) as [s' r] eqn:Eg.
  destruct (goi_any s l (fst chtag) H Hl Hlen Hce Hred Htags s' r Eg) as [W' [X [id [nd [Er [E' [El Ec]]]]]]].
  exists s', (mkEdge (eref r) (snd chtag)). split; [reflexivity|].
  pose proof (bcddok_extends s s' B X W') as B'.
  split; [exact B'|]. split; [exact X|]. subst r. simpl eref.
  split; [exists nd; exact E'|]. split; [simpl; rewrite E'; exact El|].
  intros a. unfold den_bcdd.
  rewrite (fun_bcdd_ext s' _ a (updb a (nlevel nd) (a (nlevel nd))) W').
  2:{ intros l0. unfold updb. destruct (Nat.eqb_spec l0 (nlevel nd)); congruence. }
  change (fun_bcdd s' {| eref := RN id; etag := snd chtag |}) with (Fc s' (RN id) (snd chtag)).
  destruct (fst chtag) as [|e0 [|e1 [|]]] eqn:Ech; try (simpl in Hlen; rewrite Hk in Hlen; discriminate).
  rewrite (Fc_child s' W' id (snd chtag) nd e0 e1 a (a (nlevel nd)) E' Ec). rewrite El.
  unfold Fc.
  assert (Hsub : forall a, fun_bcdd s' sub a = fun_bcdd s sub a)
    by (intros a1; apply (fun_bcdd_extends s s' sub a1 H X Gs)).
  unfold chtag in Ech. unfold chtag.
  destruct c; [destruct (etag sub) eqn:Ts|]; simpl in Ech; inversion Ech; subst e0 e1; simpl snd;
    destruct (a l); simpl.
  all: cbn [eref etag xorb Bool.eqb andb negb fst snd].
  all: try (apply (fun_bcdd_term s' {| eref := RT tid; etag := true |} tid a eq_refl)).
  all: rewrite <- (Hsub a); f_equal; apply edge_ext; simpl; try rewrite Ts; try reflexivity.
  destruct (etag sub); reflexivity.
Qed.

(** ** The theorems for BCDDs *)

Ltac bcdd_inst :=
  first [ exact bcdd_OK_WF | exact bcdd_good_ref | exact bcdd_view_err | exact bcdd_view_term
        | exact bcdd_view_node | exact bcdd_den_indep | exact add_lit_bcdd_ok
        | exact (fun s s' e a B _ => bcdd_den_extends s s' e a B) ].

Section BcddThms.
Variable St : Type.
Variable choice : St -> nat -> edge -> bool * St.

Definition Run_bcdd := Run view_bcdd St choice.

Theorem pick_cube_bcdd_total : forall s st e, BcddOK s -> good_bcdd s e ->
  exists r, pick_cube_bcdd St choice s st e = Some r.
Proof.
  intros s st e B G. eapply (pick_cube_total view_bcdd BcddOK good_bcdd den_bcdd); try bcdd_inst; assumption.
Qed.

Theorem pick_cube_bcdd_none_iff : forall s st e, BcddOK s -> good_bcdd s e ->
  (pick_cube_bcdd St choice s st e = Some None <-> forall a, den_bcdd s e a = false).
Proof.
  intros s st e B G. eapply (pick_cube_none_iff view_bcdd BcddOK good_bcdd den_bcdd); try bcdd_inst; assumption.
Qed.

Theorem pick_cube_bcdd_some : forall s st e cb tr st', BcddOK s -> good_bcdd s e ->
  pick_cube_bcdd St choice s st e = Some (Some (cb, tr, st')) ->
  Run_bcdd s st e tr st' /\ length cb = nlevels s /\
  forall l, l < nlevels s ->
    cube_lit s cb l = match trace_val tr l with Some v => v | None => None end.
Proof.
  intros s st e cb tr st' B G E.
  eapply (pick_cube_some view_bcdd BcddOK good_bcdd den_bcdd); try bcdd_inst; assumption.
Qed.

Theorem pick_cube_bcdd_implicant : forall s st e cb tr st', BcddOK s -> good_bcdd s e ->
  pick_cube_bcdd St choice s st e = Some (Some (cb, tr, st')) ->
  forall a, agrees s a cb -> den_bcdd s e a = true.
Proof.
  intros s st e cb tr st' B G E.
  eapply (pick_cube_implicant view_bcdd BcddOK good_bcdd den_bcdd); try bcdd_inst; eassumption.
Qed.

Theorem run_bcdd_levels : forall s st e tr st', BcddOK s -> Run_bcdd s st e tr st' -> good_bcdd s e ->
  incr_from (rlevel s (eref e)) (map sp_level tr) /\ forall p, In p tr -> sp_level p < nlevels s.
Proof.
  intros s st e tr st' B R G.
  eapply (run_levels view_bcdd BcddOK good_bcdd den_bcdd); try bcdd_inst; eassumption.
Qed.

Theorem run_bcdd_calls : forall s st e tr st', BcddOK s -> Run_bcdd s st e tr st' -> good_bcdd s e ->
  forall p, In p tr -> call_ok view_bcdd good_bcdd den_bcdd s p.
Proof.
  intros s st e tr st' B R G.
  eapply (run_calls view_bcdd BcddOK good_bcdd den_bcdd); try bcdd_inst; eassumption.
Qed.

Theorem run_bcdd_answers : forall s st e tr st', Run_bcdd s st e tr st' ->
  replay St choice st tr = (asked_vals tr, st').
Proof. intros s st e tr st'. apply run_answers. Qed.

Theorem pick_dd_bcdd_same_cube : forall s st e cb tr st', BcddOK s -> good_bcdd s e ->
  pick_cube_bcdd St choice s st e = Some (Some (cb, tr, st')) ->
  exists s' r,
    pick_cube_dd_bcdd St choice s st e = Some (s', r, tr, st') /\
    BcddOK s' /\ extends s s' /\ good_bcdd s' r /\
    forall a, den_bcdd s' r a = true <-> agrees s a cb.
Proof.
  intros s st e cb tr st' B G E.
  eapply (pick_dd_same_cube view_bcdd BcddOK good_bcdd den_bcdd); try bcdd_inst; eassumption.
Qed.

Theorem pick_dd_bcdd_false : forall s st e, BcddOK s -> good_bcdd s e ->
  pick_cube_bcdd St choice s st e = Some None ->
  pick_cube_dd_bcdd St choice s st e = Some (s, e, [], st).
Proof. intros s st e. apply (pick_dd_false view_bcdd BcddOK good_bcdd add_lit_bcdd St choice). Qed.

Theorem pick_dd_bcdd_implicant : forall s st e s' r tr st', BcddOK s -> good_bcdd s e ->
  pick_cube_dd_bcdd St choice s st e = Some (s', r, tr, st') ->
  BcddOK s' /\ extends s s' /\ good_bcdd s' r /\
  (forall a, den_bcdd s' r a = true -> den_bcdd s' e a = true) /\
  ((forall a, den_bcdd s' r a = false) <-> (forall a, den_bcdd s e a = false)).
Proof.
  intros s st e s' r tr st' B G E.
  eapply (pick_dd_implicant view_bcdd BcddOK good_bcdd den_bcdd); try bcdd_inst; eassumption.
Qed.

End BcddThms.

(** ** [pick_cube_dd_set] *)

Theorem pick_dd_set_bcdd_eq : forall s e set L, BcddOK s -> good_bcdd s e -> good_bcdd s set ->
  cube_lits view_bcdd (S (nlevels s)) s set = Some L ->
  pick_cube_dd_set_bcdd s e set =
  drop_st (pick_cube_dd_bcdd unit (mask_choice (lit_pol L)) s tt e).
Proof.
  intros s e set L B G Gs E.
  eapply (pick_dd_set_eq view_bcdd BcddOK good_bcdd den_bcdd); try bcdd_inst; eassumption.
Qed.

Theorem cube_lits_bcdd_den : forall s set L, BcddOK s -> good_bcdd s set ->
  cube_lits view_bcdd (S (nlevels s)) s set = Some L ->
  forall a, den_bcdd s set a = forallb (fun p : nat * bool => Bool.eqb (a (fst p)) (snd p)) L.
Proof.
  intros s set L B G E.
  eapply (CubeAt_den view_bcdd BcddOK good_bcdd den_bcdd); try bcdd_inst; try eassumption.
  eapply cube_lits_CubeAt; eauto.
Qed.

(** [pick_cube_dd_set], spelled out: false iff false, implicant, and at every
    node where the value is not forced the polarity of the literal set *)
Theorem pick_dd_set_bcdd_ok : forall s e set L s' r tr, BcddOK s -> good_bcdd s e -> good_bcdd s set ->
  cube_lits view_bcdd (S (nlevels s)) s set = Some L ->
  pick_cube_dd_set_bcdd s e set = Some (s', r, tr) ->
  BcddOK s' /\ extends s s' /\ good_bcdd s' r /\
  (forall a, den_bcdd s' r a = true -> den_bcdd s' e a = true) /\
  ((forall a, den_bcdd s' r a = false) <-> (forall a, den_bcdd s e a = false)) /\
  ((exists a0, den_bcdd s e a0 = true) -> forall a, den_bcdd s' r a = sat_trace a tr) /\
  forall p, In p tr -> call_ok view_bcdd good_bcdd den_bcdd s p /\
    (sp_asked p = true -> sp_val p = Some (lit_pol L (sp_level p))).
Proof.
  intros s e set L s' r tr B G Gs El E.
  eapply (pick_dd_set_ok view_bcdd BcddOK good_bcdd den_bcdd); try bcdd_inst; eassumption.
Qed.

(** ** [pick_cube_uniform] *)

Lemma count_bcdd_spec : forall s e, BcddOK s -> good_bcdd s e ->
  count_bcdd s e = count_levels (nlevels s) (fun_bcdd s e).
Proof.
  intros s e B G. unfold count_bcdd.
  rewrite (sat_bcdd_correct s (nlevels s) e (bc_wf s B) (bc_kind s B) (le_n _) G).
  rewrite Nat.sub_diag. change (2 ^ N.of_nat 0)%N with 1%N. lia.
Qed.

Lemma count_bcdd_term : forall s e b, BcddOK s -> good_bcdd s e -> view_bcdd s e = CTerm b ->
  count_bcdd s e = if b then (2 ^ N.of_nat (nlevels s))%N else 0%N.
Proof.
  intros s e b B G Ev. rewrite (count_bcdd_spec s e B G).
  destruct (view_bcdd_term s e b Ev) as [t [Er ->]]. unfold count_levels.
  rewrite (cnt_ext _ _ (fun_bcdd s e) (fun _ => negb (etag e))) by (intros a; apply (fun_bcdd_term s e t a Er)).
  apply cnt_const.
Qed.

Lemma count_bcdd_node : forall s e l t x, BcddOK s -> good_bcdd s e -> view_bcdd s e = CNode l t x ->
  (count_bcdd s t + count_bcdd s x = 2 * count_bcdd s e)%N.
Proof.
  intros s e l t x B G Ev.
  destruct (bcdd_view_node s e l t x B G Ev) as [_ [_ [Gt [Gx _]]]].
  destruct (view_bcdd_node s e l t x Ev) as [id [nd [t0 [x0 [Er [E [Hc [_ [-> ->]]]]]]]]].
  rewrite (count_bcdd_spec s _ B Gt), (count_bcdd_spec s _ B Gx), (count_bcdd_spec s e B G).
  rewrite <- (edge_eta e) at 3. rewrite Er.
  apply (total_node_c s id (etag e) nd t0 x0 (bc_wf s B) E Hc).
Qed.

Theorem run_bcdd_weight : forall St choice s st e tr st', BcddOK s -> Run_bcdd St choice s st e tr st' ->
  good_bcdd s e ->
  let (num, dn) := trace_weight view_bcdd count_bcdd s tr in
  (0 < num /\ 0 < dn /\ 0 < count_bcdd s e /\
   num * count_bcdd s e * 2 ^ N.of_nat (length tr) = dn * 2 ^ N.of_nat (nlevels s))%N.
Proof.
  intros St choice s st e tr st' B R G.
  eapply (run_weight view_bcdd BcddOK good_bcdd den_bcdd); try bcdd_inst; try eassumption.
  - exact count_bcdd_term.
  - exact count_bcdd_node.
Qed.

Theorem pick_uniform_bcdd_model : forall draws s e cb tr k, BcddOK s -> good_bcdd s e ->
  pick_uniform_bcdd draws s e = Some (Some (cb, tr, k)) ->
  forall a, agrees s a cb -> den_bcdd s e a = true.
Proof.
  intros draws s e cb tr k B G E.
  apply (pick_cube_bcdd_implicant nat (uni_choice view_bcdd count_bcdd draws s) s 0 e cb tr k B G E).
Qed.

Theorem pick_uniform_bcdd_none_iff : forall draws s e, BcddOK s -> good_bcdd s e ->
  (pick_uniform_bcdd draws s e = Some None <-> forall a, den_bcdd s e a = false).
Proof.
  intros draws s e B G.
  apply (pick_cube_bcdd_none_iff nat (uni_choice view_bcdd count_bcdd draws s) s 0 e B G).
Qed.
