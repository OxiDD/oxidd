(** * Cube picking on BDDs: the hypotheses of DD/PickProofs.v for [view_plain]

    [OK] is [BddOK] (DD/ApplyProofs.v: well-formed BDD table with both Boolean
    terminals), [good s e]: the edge points to something stored and carries no
    tag, [den s e] is [fun_bdd s (eref e)] (DD/SatCount.v): the Boolean
    function of level-assignments denoted by the edge. *)

From Coq Require Import List NArith PArith Bool Arith Lia FMapPositive.
From OxiVerif Require Import DD.Table DD.TableProofs DD.Canon DD.Build DD.BuildProofs DD.Apply DD.ApplyProofs
  DD.SatCount DD.SatCountProofs DD.Pick DD.PickProofs.
Import ListNotations.

Arguments N.add : simpl never.
Arguments N.mul : simpl never.
Arguments N.pow : simpl never.

Definition good_bdd (s : snap) (e : edge) : Prop := ref_ok s (eref e) /\ etag e = false.
Definition den_bdd (s : snap) (e : edge) : lasg -> bool := fun_bdd s (eref e).

Lemma bdd_binary_k : forall s, BddOK s -> binary (s_kind s).
Proof. intros s B. unfold binary. rewrite (bo_kind s B). discriminate. Qed.

Lemma fun_bdd_ext : forall s r a a', WF s -> (forall l, a l = a' l) -> fun_bdd s r a = fun_bdd s r a'.
Proof.
  intros s r a a' H Ha. unfold fun_bdd. f_equal. apply (semk_ext s H). intros l _.
  unfold choice_of. rewrite Ha. reflexivity.
Qed.

Lemma fun_bdd_term : forall s t b a, term_val s t = Some (b2c b) -> fun_bdd s (RT t) a = b.
Proof. intros s t b a E. unfold fun_bdd. rewrite semk_T, E. destruct b; reflexivity. Qed.

Lemma bdd_node_sat : forall s id nd, BddOK s -> find_node s id = Some nd ->
  exists a, fun_bdd s (RN id) a = true.
Proof.
  intros s id nd B E. apply (cnt_witness (nlevels s) 0).
  exact (node_not_empty s (bo_wf s B) (bo_kind s B) (bo_codes s B) id nd E).
Qed.

Section BddInst.

Lemma bdd_OK_WF : forall s, BddOK s -> WF s.
Proof. intros s B. apply (bo_wf s B). Qed.

Lemma bdd_good_ref : forall s e, good_bdd s e -> ref_ok s (eref e).
Proof. intros s e [A _]. exact A. Qed.

Lemma bdd_view_err : forall s e, BddOK s -> good_bdd s e -> view_plain s e <> CErr.
Proof.
  intros s e B [Hok _]. unfold view_plain. destruct (eref e) as [t|id].
  - destruct Hok as [v Ev]. rewrite Ev. destruct (bo_codes s B t v Ev) as [->| ->]; discriminate.
  - destruct Hok as [nd E]. rewrite E.
    destruct (two_children s id nd (bo_wf s B) (bdd_binary_k s B) E) as [e0 [e1 Hc]]. rewrite Hc. discriminate.
Qed.

Lemma view_plain_term : forall s e b, view_plain s e = CTerm b ->
  exists t, eref e = RT t /\ term_val s t = Some (b2c b).
Proof.
  intros s e b. unfold view_plain. destruct (eref e) as [t|id].
  - destruct (term_val s t) as [[|[|p|]]|] eqn:Ev; try discriminate; intros E; inversion E; subst; eauto.
  - destruct (find_node s id) as [nd|]; [|discriminate].
    destruct (nchildren nd) as [|? [|? [|]]]; discriminate.
Qed.

Lemma view_plain_node : forall s e l t x, view_plain s e = CNode l t x ->
  exists id nd, eref e = RN id /\ find_node s id = Some nd /\ nchildren nd = [t; x] /\ l = nstored nd.
Proof.
  intros s e l t x. unfold view_plain. destruct (eref e) as [t0|id].
  - destruct (term_val s t0) as [[|[|p|]]|]; discriminate.
  - destruct (find_node s id) as [nd|] eqn:E; [|discriminate].
    destruct (nchildren nd) as [|a [|b [|]]] eqn:Hc; try discriminate.
    intros X. inversion X; subst. exists id, nd. auto.
Qed.

Lemma bdd_view_term : forall s e b, BddOK s -> good_bdd s e -> view_plain s e = CTerm b ->
  rlevel s (eref e) = nlevels s /\ forall a, den_bdd s e a = b.
Proof.
  intros s e b B G Ev. destruct (view_plain_term s e b Ev) as [t [Er Et]].
  unfold den_bdd. rewrite Er. split; [reflexivity|]. intros a. apply fun_bdd_term. exact Et.
Qed.

Lemma bdd_view_node : forall s e l t x, BddOK s -> good_bdd s e -> view_plain s e = CNode l t x ->
  l = rlevel s (eref e) /\ l < nlevels s /\ good_bdd s t /\ good_bdd s x /\
  l < rlevel s (eref t) /\ l < rlevel s (eref x) /\
  (forall a, den_bdd s e a = if a l then den_bdd s t a else den_bdd s x a) /\
  (exists a, den_bdd s e a = true).
Proof.
  intros s e l t x B G Ev. pose proof (bo_wf s B) as H.
  destruct (view_plain_node s e l t x Ev) as [id [nd [Er [E [Hc Hl]]]]].
  rewrite (wf_stored s H id nd E) in Hl. subst l.
  destruct (node_children_ok s id nd t x H E Hc) as [Ct Cx].
  assert (Hk : s_kind s <> KBcdd) by (rewrite (bo_kind s B); discriminate).
  assert (Tt : etag t = false) by (apply (wf_tags s H Hk id nd t E); rewrite Hc; left; reflexivity).
  assert (Tx : etag x = false) by (apply (wf_tags s H Hk id nd x E); rewrite Hc; right; left; reflexivity).
  unfold den_bdd. rewrite Er.
  split; [rewrite (rlevel_node s id nd E); reflexivity|].
  split; [apply (wf_level s H id nd E)|].
  split; [split; [apply Ct | exact Tt]|]. split; [split; [apply Cx | exact Tx]|].
  split; [apply Ct|]. split; [apply Cx|]. split.
  - intros a.
    rewrite (fun_bdd_ext s (RN id) a (updb a (nlevel nd) (a (nlevel nd))) H).
    + rewrite (fun_bdd_child s H id nd t x a (a (nlevel nd)) E Hc). destruct (a (nlevel nd)); reflexivity.
    + intros l. unfold updb. destruct (Nat.eqb_spec l (nlevel nd)); congruence.
  - apply (bdd_node_sat s id nd B E).
Qed.

Lemma bdd_den_indep : forall s e l a b, BddOK s -> good_bdd s e -> l < rlevel s (eref e) ->
  den_bdd s e (updb a l b) = den_bdd s e a.
Proof.
  intros s e l a b B G Hl. unfold den_bdd.
  apply (fun_bdd_indep s (bo_wf s B) (eref e) l Hl).
Qed.

Lemma bdd_good_extends : forall s s' e, BddOK s -> extends s s' -> good_bdd s e -> good_bdd s' e.
Proof. intros s s' e B X [A T]. split; [eapply ext_ref_ok; eauto | exact T]. Qed.

Lemma bdd_den_extends : forall s s' e a, BddOK s -> BddOK s' -> extends s s' -> good_bdd s e ->
  den_bdd s' e a = den_bdd s e a.
Proof.
  intros s s' e a B B' X [A _]. unfold den_bdd, fun_bdd.
  rewrite (ext_nlevels _ _ X), (semk_extends s s' (bo_wf s B) X _ _ _ A). reflexivity.
Qed.

Lemma add_lit_bdd_ok : forall s sub l c, BddOK s -> good_bdd s sub -> l < nlevels s ->
  l < rlevel s (eref sub) -> (exists a, den_bdd s sub a = true) ->
  exists s' r, add_lit_bdd s sub l c = Some (s', r) /\ BddOK s' /\ extends s s' /\ good_bdd s' r /\
    rlevel s' (eref r) = l /\ forall a, den_bdd s' r a = Bool.eqb (a l) c && den_bdd s sub a.
Proof.
  intros s sub l c B [Gs Ts] Hl Hls [a0 Ha0]. pose proof (bo_wf s B) as H.
  unfold add_lit_bdd. destruct (term_of_total s false B) as [f Ef]. rewrite Ef.
  pose proof (term_of_spec s false f H Ef) as Vf. simpl in Vf.
  set (ch := if c then [sub; E (RT f)] else [E (RT f); sub]).
  destruct (get_or_insert s l ch) as [s' r] eqn:Eg.
  assert (Hne : sub <> E (RT f)).
  { intros ->. unfold den_bdd in Ha0. simpl in Ha0. rewrite (fun_bdd_term s f false a0 Vf) in Ha0. discriminate. }
  assert (Hch : children_ok s l ch).
  { split; [unfold ch; rewrite (bo_kind s B); destruct c; reflexivity|].
    assert (HF : ref_ok s (eref (E (RT f))) /\ l < rlevel s (eref (E (RT f))) /\ etag (E (RT f)) = false)
      by (simpl; split; [eauto | split; [exact Hl | reflexivity]]).
    intros e He. unfold ch in He. destruct c; simpl in He; destruct He as [<-|[<-|[]]]; auto. }
  assert (Hae : all_equal ch = false).
  { unfold ch. destruct c; simpl; rewrite andb_true_r.
    - destruct (edge_eqb sub (E (RT f))) eqn:Q; [apply edge_eqb_eq in Q; contradiction | reflexivity].
    - destruct (edge_eqb (E (RT f)) sub) eqn:Q; [apply edge_eqb_eq in Q; congruence | reflexivity]. }
  destruct (get_or_insert_wf s l ch s' r H (bdd_kary s B) Hl Hch Hae Eg) as [W' [X [Rr [Tr [Lr Sh]]]]].
  exists s', r. split; [reflexivity|]. split; [apply (bddok_extends s s' B X W')|].
  split; [exact X|]. split; [split; assumption|]. split; [exact Lr|].
  intros a. unfold den_bdd, fun_bdd.
  destruct (Bool.eqb (a l) c) eqn:Eac.
  - apply eqb_prop in Eac.
    rewrite (Sh (choice_of a) (if c then 0 else 1) sub).
    + reflexivity.
    + unfold choice_of. rewrite Eac. reflexivity.
    + unfold ch. destruct c; reflexivity.
  - apply eqb_false_iff in Eac.
    rewrite (Sh (choice_of a) (if c then 1 else 0) (E (RT f))).
    + simpl. rewrite semk_T, Vf. reflexivity.
    + unfold choice_of. destruct (a l), c; try reflexivity; exfalso; apply Eac; reflexivity.
    + unfold ch. destruct c; reflexivity.
Qed.

End BddInst.

(** ** The theorems for BDDs *)

Ltac bdd_inst :=
  first [ exact bdd_OK_WF | exact bdd_good_ref | exact bdd_view_err | exact bdd_view_term
        | exact bdd_view_node | exact bdd_den_indep | exact add_lit_bdd_ok | exact bdd_den_extends ].

Section BddThms.
Variable St : Type.
Variable choice : St -> nat -> edge -> bool * St.

Definition Run_bdd := Run view_plain St choice.

Theorem pick_cube_bdd_total : forall s st e, BddOK s -> good_bdd s e ->
  exists r, pick_cube_bdd St choice s st e = Some r.
Proof.
  intros s st e B G. eapply (pick_cube_total view_plain BddOK good_bdd den_bdd); try bdd_inst; assumption.
Qed.

Theorem pick_cube_bdd_none_iff : forall s st e, BddOK s -> good_bdd s e ->
  (pick_cube_bdd St choice s st e = Some None <-> forall a, den_bdd s e a = false).
Proof.
  intros s st e B G. eapply (pick_cube_none_iff view_plain BddOK good_bdd den_bdd); try bdd_inst; assumption.
Qed.

Theorem pick_cube_bdd_some : forall s st e cb tr st', BddOK s -> good_bdd s e ->
  pick_cube_bdd St choice s st e = Some (Some (cb, tr, st')) ->
  Run_bdd s st e tr st' /\ length cb = nlevels s /\
  forall l, l < nlevels s ->
    cube_lit s cb l = match trace_val tr l with Some v => v | None => None end.
Proof.
  intros s st e cb tr st' B G E.
  eapply (pick_cube_some view_plain BddOK good_bdd den_bdd); try bdd_inst; assumption.
Qed.

Theorem pick_cube_bdd_implicant : forall s st e cb tr st', BddOK s -> good_bdd s e ->
  pick_cube_bdd St choice s st e = Some (Some (cb, tr, st')) ->
  forall a, agrees s a cb -> den_bdd s e a = true.
Proof.
  intros s st e cb tr st' B G E.
  eapply (pick_cube_implicant view_plain BddOK good_bdd den_bdd); try bdd_inst; eassumption.
Qed.

Theorem run_bdd_levels : forall s st e tr st', BddOK s -> Run_bdd s st e tr st' -> good_bdd s e ->
  incr_from (rlevel s (eref e)) (map sp_level tr) /\ forall p, In p tr -> sp_level p < nlevels s.
Proof.
  intros s st e tr st' B R G.
  eapply (run_levels view_plain BddOK good_bdd den_bdd); try bdd_inst; eassumption.
Qed.

Theorem run_bdd_calls : forall s st e tr st', BddOK s -> Run_bdd s st e tr st' -> good_bdd s e ->
  forall p, In p tr -> call_ok view_plain good_bdd den_bdd s p.
Proof.
  intros s st e tr st' B R G.
  eapply (run_calls view_plain BddOK good_bdd den_bdd); try bdd_inst; eassumption.
Qed.

Theorem run_bdd_answers : forall s st e tr st', Run_bdd s st e tr st' ->
  replay St choice st tr = (asked_vals tr, st').
Proof. intros s st e tr st'. apply run_answers. Qed.

Theorem pick_dd_bdd_same_cube : forall s st e cb tr st', BddOK s -> good_bdd s e ->
  pick_cube_bdd St choice s st e = Some (Some (cb, tr, st')) ->
  exists s' r,
    pick_cube_dd_bdd St choice s st e = Some (s', r, tr, st') /\
    BddOK s' /\ extends s s' /\ good_bdd s' r /\
    forall a, den_bdd s' r a = true <-> agrees s a cb.
Proof.
  intros s st e cb tr st' B G E.
  eapply (pick_dd_same_cube view_plain BddOK good_bdd den_bdd); try bdd_inst; eassumption.
Qed.

Theorem pick_dd_bdd_false : forall s st e, BddOK s -> good_bdd s e ->
  pick_cube_bdd St choice s st e = Some None ->
  pick_cube_dd_bdd St choice s st e = Some (s, e, [], st).
Proof. intros s st e. apply (pick_dd_false view_plain BddOK good_bdd add_lit_bdd St choice). Qed.

End BddThms.

(** ** [pick_cube_dd]: the result implies the function (in the extended table) *)

Theorem pick_dd_bdd_implicant : forall St choice s st e s' r tr st', BddOK s -> good_bdd s e ->
  pick_cube_dd_bdd St choice s st e = Some (s', r, tr, st') ->
  BddOK s' /\ extends s s' /\ good_bdd s' r /\
  (forall a, den_bdd s' r a = true -> den_bdd s' e a = true) /\
  ((forall a, den_bdd s' r a = false) <-> (forall a, den_bdd s e a = false)).
Proof.
  intros St choice s st e s' r tr st' B G E.
  eapply (pick_dd_implicant view_plain BddOK good_bdd den_bdd); try bdd_inst; eassumption.
Qed.

(** ** [pick_cube_dd_set] *)

Theorem pick_dd_set_bdd_eq : forall s e set L, BddOK s -> good_bdd s e -> good_bdd s set ->
  cube_lits view_plain (S (nlevels s)) s set = Some L ->
  pick_cube_dd_set_bdd s e set =
  drop_st (pick_cube_dd_bdd unit (mask_choice (lit_pol L)) s tt e).
Proof.
  intros s e set L B G Gs E.
  eapply (pick_dd_set_eq view_plain BddOK good_bdd den_bdd); try bdd_inst; eassumption.
Qed.

Theorem cube_lits_bdd_den : forall s set L, BddOK s -> good_bdd s set ->
  cube_lits view_plain (S (nlevels s)) s set = Some L ->
  forall a, den_bdd s set a = forallb (fun p : nat * bool => Bool.eqb (a (fst p)) (snd p)) L.
Proof.
  intros s set L B G E.
  eapply (CubeAt_den view_plain BddOK good_bdd den_bdd); try bdd_inst; try eassumption.
  eapply cube_lits_CubeAt; eauto.
Qed.

(** [pick_cube_dd_set], spelled out: false iff false, implicant, and at every
    node where the value is not forced the polarity of the literal set *)
Theorem pick_dd_set_bdd_ok : forall s e set L s' r tr, BddOK s -> good_bdd s e -> good_bdd s set ->
  cube_lits view_plain (S (nlevels s)) s set = Some L ->
  pick_cube_dd_set_bdd s e set = Some (s', r, tr) ->
  BddOK s' /\ extends s s' /\ good_bdd s' r /\
  (forall a, den_bdd s' r a = true -> den_bdd s' e a = true) /\
  ((forall a, den_bdd s' r a = false) <-> (forall a, den_bdd s e a = false)) /\
  ((exists a0, den_bdd s e a0 = true) -> forall a, den_bdd s' r a = sat_trace a tr) /\
  forall p, In p tr -> call_ok view_plain good_bdd den_bdd s p /\
    (sp_asked p = true -> sp_val p = Some (lit_pol L (sp_level p))).
Proof.
  intros s e set L s' r tr B G Gs El E.
  eapply (pick_dd_set_ok view_plain BddOK good_bdd den_bdd); try bdd_inst; eassumption.
Qed.

(** ** [pick_cube_uniform] *)

Lemma count_bdd_spec : forall s e, BddOK s -> good_bdd s e ->
  count_bdd s e = count_levels (nlevels s) (fun_bdd s (eref e)).
Proof.
  intros s e B [G _]. unfold count_bdd.
  rewrite (sat_bdd_correct s (nlevels s) (eref e) (bo_wf s B) (bo_kind s B) (le_n _) G).
  rewrite Nat.sub_diag. change (2 ^ N.of_nat 0)%N with 1%N. lia.
Qed.

Lemma count_bdd_term : forall s e b, BddOK s -> good_bdd s e -> view_plain s e = CTerm b ->
  count_bdd s e = if b then (2 ^ N.of_nat (nlevels s))%N else 0%N.
Proof.
  intros s e b B G Ev. rewrite (count_bdd_spec s e B G).
  destruct (view_plain_term s e b Ev) as [t [Er Et]]. rewrite Er. unfold count_levels.
  rewrite (cnt_ext _ _ (fun_bdd s (RT t)) (fun _ => b)) by (intros a; apply fun_bdd_term; exact Et).
  apply cnt_const.
Qed.

Lemma count_bdd_node : forall s e l t x, BddOK s -> good_bdd s e -> view_plain s e = CNode l t x ->
  (count_bdd s t + count_bdd s x = 2 * count_bdd s e)%N.
Proof.
  intros s e l t x B G Ev.
  destruct (bdd_view_node s e l t x B G Ev) as [_ [_ [Gt [Gx _]]]].
  destruct (view_plain_node s e l t x Ev) as [id [nd [Er [E [Hc _]]]]].
  rewrite (count_bdd_spec s t B Gt), (count_bdd_spec s x B Gx), (count_bdd_spec s e B G), Er.
  apply (total_node s id nd t x (bo_wf s B) E Hc).
Qed.

(** probability of the returned cube = 2^(levels - literals) / #models *)
Theorem run_bdd_weight : forall St choice s st e tr st', BddOK s -> Run_bdd St choice s st e tr st' ->
  good_bdd s e ->
  let (num, dn) := trace_weight view_plain count_bdd s tr in
  (0 < num /\ 0 < dn /\ 0 < count_bdd s e /\
   num * count_bdd s e * 2 ^ N.of_nat (length tr) = dn * 2 ^ N.of_nat (nlevels s))%N.
Proof.
  intros St choice s st e tr st' B R G.
  eapply (run_weight view_plain BddOK good_bdd den_bdd); try bdd_inst; try eassumption.
  - exact count_bdd_term.
  - exact count_bdd_node.
Qed.

(** the uniform picker is [pick_cube] with a particular (stateful) choice:
    everything above applies; in particular it never returns a non-model *)
Theorem pick_uniform_bdd_model : forall draws s e cb tr k, BddOK s -> good_bdd s e ->
  pick_uniform_bdd draws s e = Some (Some (cb, tr, k)) ->
  forall a, agrees s a cb -> den_bdd s e a = true.
Proof.
  intros draws s e cb tr k B G E.
  apply (pick_cube_bdd_implicant nat (uni_choice view_plain count_bdd draws s) s 0 e cb tr k B G E).
Qed.

Theorem pick_uniform_bdd_none_iff : forall draws s e, BddOK s -> good_bdd s e ->
  (pick_uniform_bdd draws s e = Some None <-> forall a, den_bdd s e a = false).
Proof.
  intros draws s e B G.
  apply (pick_cube_bdd_none_iff nat (uni_choice view_plain count_bdd draws s) s 0 e B G).
Qed.
