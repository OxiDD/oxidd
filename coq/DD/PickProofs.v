(** * Proofs about cube picking, part 1: the walk shared by BDDs and BCDDs

    Everything here is proved once for an abstract *view* of edges
    ([Pick.cview]) together with a denotation [den] and an invariant [OK] that
    satisfy a handful of hypotheses (Section [Gen]); DD/PickBdd.v and
    DD/PickBcdd.v discharge the hypotheses for [view_plain] / [view_bcdd].

    Contents:
    - cube vectors: [write_all_spec] (the vector written along a trace with
      pairwise distinct levels holds exactly the trace's literals; uses that
      [level_to_var] is injective, i.e. the permutation clause of [WF]);
    - [Run]: the relational specification of the walk, [walk_run];
    - [pick_cube_total], [pick_cube_none_iff], [pick_cube_some],
      [pick_cube_implicant], [run_calls], [run_answers];
    - [pick_dd_spec], [pick_dd_same_cube]: the diagram built by
      [pick_cube_dd] denotes exactly the cube of [pick_cube];
    - [pick_dd_set_eq]: with a literal set that is a cube diagram,
      [pick_cube_dd_set] is [pick_cube_dd] with the choice "polarity in the set";
    - [run_weight]: the probability of a trace under [pick_cube_uniform]
      is 2^(don't cares) / #models (as an identity over N). *)

From Coq Require Import List NArith PArith Bool Arith Lia FMapPositive.
From OxiVerif Require Import DD.Table DD.TableProofs DD.Build DD.BuildProofs DD.SatCount
  DD.SatCountProofs DD.Pick.
Import ListNotations.

Arguments N.add : simpl never.
Arguments N.mul : simpl never.
Arguments N.pow : simpl never.

(** ** Cube vectors *)

Lemma set_nth_length : forall (A : Type) i (v : A) l l', set_nth i v l = Some l' -> length l' = length l.
Proof.
  intros A. induction i as [|i IH]; intros v [|x r] l' E; simpl in E; try discriminate.
  - inversion E. reflexivity.
  - destruct (set_nth i v r) as [r'|] eqn:Er; [|discriminate]. simpl in E. inversion E.
    simpl. f_equal. eapply IH; eauto.
Qed.

Lemma set_nth_some : forall (A : Type) i (v : A) l, i < length l -> exists l', set_nth i v l = Some l'.
Proof.
  intros A. induction i as [|i IH]; intros v [|x r] Hi; simpl in *; try lia.
  - eauto.
  - destruct (IH v r ltac:(lia)) as [r' Er]. rewrite Er. simpl. eauto.
Qed.

Lemma set_nth_same : forall (A : Type) i (v : A) l l', set_nth i v l = Some l' -> nth_error l' i = Some v.
Proof.
  intros A. induction i as [|i IH]; intros v [|x r] l' E; simpl in E; try discriminate.
  - inversion E. reflexivity.
  - destruct (set_nth i v r) as [r'|] eqn:Er; [|discriminate]. simpl in E. inversion E.
    simpl. eapply IH; eauto.
Qed.

Lemma set_nth_other : forall (A : Type) i (v : A) l l' j, set_nth i v l = Some l' -> j <> i ->
  nth_error l' j = nth_error l j.
Proof.
  intros A. induction i as [|i IH]; intros v [|x r] l' j E Hj; simpl in E; try discriminate.
  - inversion E. destruct j; [lia | reflexivity].
  - destruct (set_nth i v r) as [r'|] eqn:Er; [|discriminate]. simpl in E. inversion E.
    destruct j; [reflexivity|]. simpl. eapply IH; eauto.
Qed.

(** the value a trace writes for level [l] (first visit) *)
Fixpoint trace_val (tr : list step) (l : nat) : option (option bool) :=
  match tr with
  | [] => None
  | p :: r => if Nat.eqb (sp_level p) l then Some (sp_val p) else trace_val r l
  end.

Lemma trace_val_none : forall tr l, ~ In l (map sp_level tr) -> trace_val tr l = None.
Proof.
  induction tr as [|p r IH]; intros l Hn; simpl; [reflexivity|].
  destruct (Nat.eqb_spec (sp_level p) l) as [E|_].
  - exfalso. apply Hn. left. exact E.
  - apply IH. intro Hi. apply Hn. right. exact Hi.
Qed.

Lemma trace_val_in : forall tr p, NoDup (map sp_level tr) -> In p tr ->
  trace_val tr (sp_level p) = Some (sp_val p).
Proof.
  induction tr as [|q r IH]; intros p Hnd Hin; [destruct Hin|].
  simpl in Hnd. inversion Hnd as [|? ? Hq Hr]; subst. simpl.
  destruct Hin as [->|Hin].
  - rewrite Nat.eqb_refl. reflexivity.
  - destruct (Nat.eqb_spec (sp_level q) (sp_level p)) as [E|_].
    + exfalso. apply Hq. rewrite E. apply in_map. exact Hin.
    + apply IH; assumption.
Qed.

Lemma trace_val_some : forall tr l v, trace_val tr l = Some v ->
  exists p, In p tr /\ sp_level p = l /\ sp_val p = v.
Proof.
  induction tr as [|q r IH]; intros l v E; simpl in E; [discriminate|].
  destruct (Nat.eqb_spec (sp_level q) l) as [El|_].
  - inversion E. exists q. split; [left; reflexivity | auto].
  - destruct (IH l v E) as [p [A B]]. exists p. split; [right; exact A | exact B].
Qed.

Section Cube.
Variable s : snap.
Hypothesis H : WF s.

(** [level_to_var] is injective on the levels *)
Lemma l2v_inj : forall l1 l2 v, nth_error (s_l2v s) l1 = Some v -> nth_error (s_l2v s) l2 = Some v -> l1 = l2.
Proof.
  intros l1 l2 v E1 E2.
  assert (L1 : l1 < length (s_l2v s)) by (apply nth_error_Some; congruence).
  assert (L2 : l2 < length (s_l2v s)) by (apply nth_error_Some; congruence).
  destruct (wf_perm_l2v s H l1 L1) as [j1 [A1 B1]].
  destruct (wf_perm_l2v s H l2 L2) as [j2 [A2 B2]].
  congruence.
Qed.

Lemma l2v_some : forall l, l < nlevels s -> exists v, nth_error (s_l2v s) l = Some v /\ v < nlevels s.
Proof.
  intros l Hl. destruct (wf_perm_l2v s H l Hl) as [j [A B]]. exists j. split; [exact A|].
  unfold nlevels. rewrite <- (wf_perm_len s H). apply nth_error_Some. congruence.
Qed.

Lemma cube_lit_write : forall cb cb' p, length cb = nlevels s -> sp_level p < nlevels s ->
  write_step s (Some cb) p = Some cb' ->
  length cb' = nlevels s /\
  forall l, l < nlevels s ->
    cube_lit s cb' l = if Nat.eqb (sp_level p) l then sp_val p else cube_lit s cb l.
Proof.
  intros cb cb' p Hlen Hp E. unfold write_step in E.
  destruct (l2v_some _ Hp) as [v [Ev Hv]]. rewrite Ev in E.
  split; [rewrite (set_nth_length _ _ _ _ _ E); exact Hlen|].
  intros l Hl. unfold cube_lit. destruct (l2v_some _ Hl) as [w [Ew Hw]]. rewrite Ew.
  destruct (Nat.eqb_spec (sp_level p) l) as [El|Hne].
  - subst l. assert (w = v) by congruence. subst w. rewrite (set_nth_same _ _ _ _ _ E). reflexivity.
  - rewrite (set_nth_other _ _ _ _ _ w E); [reflexivity|].
    intro Ewv. subst w. apply Hne. eapply l2v_inj; eauto.
Qed.

Lemma write_step_some : forall cb p, length cb = nlevels s -> sp_level p < nlevels s ->
  exists cb', write_step s (Some cb) p = Some cb'.
Proof.
  intros cb p Hlen Hp. unfold write_step. destruct (l2v_some _ Hp) as [v [Ev Hv]]. rewrite Ev.
  apply set_nth_some. lia.
Qed.

(** the vector after all writes of a trace whose levels are pairwise distinct *)
Lemma write_all_spec : forall tr cb, length cb = nlevels s ->
  (forall p, In p tr -> sp_level p < nlevels s) -> NoDup (map sp_level tr) ->
  exists cb', write_all s tr cb = Some cb' /\ length cb' = nlevels s /\
    forall l, l < nlevels s ->
      cube_lit s cb' l = match trace_val tr l with Some v => v | None => cube_lit s cb l end.
Proof.
  unfold write_all. induction tr as [|p r IH]; intros cb Hlen Hlv Hnd.
  - exists cb. simpl. auto.
  - simpl in Hnd. inversion Hnd as [|? ? Hp Hr]; subst.
    destruct (write_step_some cb p Hlen (Hlv p (or_introl eq_refl))) as [cb1 E1].
    destruct (cube_lit_write cb cb1 p Hlen (Hlv p (or_introl eq_refl)) E1) as [L1 W1].
    destruct (IH cb1 L1 (fun q Hq => Hlv q (or_intror Hq)) Hr) as [cb' [E' [L' W']]].
    exists cb'. cbn [fold_left]. split; [rewrite <- E'; f_equal; exact E1|]. split; [exact L'|].
    intros l Hl. rewrite (W' l Hl), (W1 l Hl). simpl trace_val.
    destruct (Nat.eqb_spec (sp_level p) l) as [El|_]; [|reflexivity].
    subst l. rewrite (trace_val_none r _ Hp). reflexivity.
Qed.

End Cube.

Lemma cube_lit_repeat : forall s (v : option bool) l, WF s -> l < nlevels s ->
  cube_lit s (repeat v (nlevels s)) l = v.
Proof.
  intros s v l H Hl. unfold cube_lit. destruct (l2v_some s H l Hl) as [w [Ew Hw]]. rewrite Ew.
  rewrite (nth_error_nth' _ v) by (rewrite repeat_length; exact Hw).
  rewrite nth_repeat. reflexivity.
Qed.

(** strictly increasing levels, all at least [L] *)
Fixpoint incr_from (L : nat) (ls : list nat) : Prop :=
  match ls with
  | [] => True
  | l :: r => L <= l /\ incr_from (S l) r
  end.

Lemma incr_from_weaken : forall ls L L', incr_from L ls -> L' <= L -> incr_from L' ls.
Proof. destruct ls as [|l r]; simpl; intros L L' Hi Hl; [exact I|]. split; [lia | apply Hi]. Qed.

Lemma incr_from_ge : forall ls L l, incr_from L ls -> In l ls -> L <= l.
Proof.
  induction ls as [|x r IH]; intros L l Hi Hin; [destruct Hin|].
  simpl in Hi. destruct Hi as [A B]. destruct Hin as [->|Hin]; [exact A|].
  specialize (IH (S x) l B Hin). lia.
Qed.

Lemma incr_from_nodup : forall ls L, incr_from L ls -> NoDup ls.
Proof.
  induction ls as [|x r IH]; intros L Hi; constructor.
  - simpl in Hi. destruct Hi as [_ B]. intro Hin. pose proof (incr_from_ge r (S x) x B Hin). lia.
  - simpl in Hi. destruct Hi as [_ B]. eapply IH; eauto.
Qed.

(** an assignment agrees with a cube vector *)
Definition agrees (s : snap) (a : lasg) (cb : cubev) : Prop :=
  forall l b, l < nlevels s -> cube_lit s cb l = Some b -> a l = b.

(** the literals of a trace hold under [a] *)
Definition sat_trace (a : lasg) (tr : list step) : bool :=
  forallb (fun p => match sp_val p with Some c => Bool.eqb (a (sp_level p)) c | None => true end) tr.

Lemma filter_ext_len : forall (f g : nat -> bool) l, (forall x, In x l -> f x = g x) ->
  length (filter f l) = length (filter g l).
Proof.
  intros f g. induction l as [|x l IH]; intros Hx; [reflexivity|]. simpl.
  rewrite (Hx x (or_introl eq_refl)). destruct (g x); simpl; rewrite IH; auto;
    intros y Hy; apply Hx; right; exact Hy.
Qed.

(** ** The number of literals of a trace = the number of decided entries

    [run_weight] speaks of [length tr]; in the cube vector these are exactly
    the levels with a decided entry, so [nlevels - length tr] is the number of
    don't-care entries. *)

Lemma filter_one_more : forall (g : nat -> bool) a n, a < n -> g a = false ->
  length (filter (fun l => Nat.eqb a l || g l) (seq 0 n)) = S (length (filter g (seq 0 n))).
Proof.
  intros g a. induction n as [|n IH]; intros Ha Hg; [lia|].
  rewrite seq_S, !filter_app, !app_length. simpl.
  destruct (Nat.eq_dec a n) as [->|Hne].
  - rewrite Nat.eqb_refl, Hg. simpl.
    rewrite (filter_ext_len (fun l => Nat.eqb n l || g l) g); [lia|].
    intros x Hx. apply in_seq in Hx. destruct (Nat.eqb_spec n x); [lia | reflexivity].
  - rewrite IH by (assumption || lia). destruct (Nat.eqb_spec a n); [contradiction|]. simpl. lia.
Qed.

Lemma decided_count : forall n tr, NoDup (map sp_level tr) -> (forall p, In p tr -> sp_level p < n) ->
  length (filter (fun l => match trace_val tr l with Some _ => true | None => false end) (seq 0 n))
  = length tr.
Proof.
  intros n. induction tr as [|p r IH]; intros Hnd Hlv.
  - simpl. induction (seq 0 n) as [|x l IHl]; [reflexivity | exact IHl].
  - simpl in Hnd. inversion Hnd as [|? ? Hp Hr]; subst.
    rewrite (filter_ext_len _ (fun l => Nat.eqb (sp_level p) l ||
                                        match trace_val r l with Some _ => true | None => false end)).
    + rewrite filter_one_more.
      * simpl. f_equal. apply IH; [exact Hr | intros q Hq; apply Hlv; right; exact Hq].
      * apply Hlv. left. reflexivity.
      * rewrite (trace_val_none r _ Hp). reflexivity.
    + intros x _. simpl. destruct (Nat.eqb (sp_level p) x); reflexivity.
Qed.

Theorem dont_care_count : forall s cb tr, NoDup (map sp_level tr) ->
  (forall p, In p tr -> sp_level p < nlevels s) ->
  (forall p, In p tr -> sp_val p <> None) ->
  (forall l, l < nlevels s ->
     cube_lit s cb l = match trace_val tr l with Some v => v | None => None end) ->
  length (filter (fun l => match cube_lit s cb l with None => true | Some _ => false end)
                 (seq 0 (nlevels s))) = nlevels s - length tr.
Proof.
  intros s cb tr Hnd Hlv Hsome Hc.
  pose proof (decided_count (nlevels s) tr Hnd Hlv) as Hd.
  assert (Hsplit : forall (f : nat -> bool) l,
            length (filter f l) + length (filter (fun x => negb (f x)) l) = length l).
  { intros f. induction l as [|x l IH]; [reflexivity|]. simpl. destruct (f x); simpl; lia. }
  specialize (Hsplit (fun l => match trace_val tr l with Some _ => true | None => false end) (seq 0 (nlevels s))).
  rewrite seq_length, Hd in Hsplit.
  rewrite (filter_ext_len _ (fun x => negb match trace_val tr x with Some _ => true | None => false end)); [lia|].
  intros l Hl. apply in_seq in Hl. rewrite (Hc l ltac:(lia)).
  destruct (trace_val tr l) as [v|] eqn:Et; [|reflexivity].
  destruct (trace_val_some tr l v Et) as [p [Hp [_ Ev]]].
  destruct v; [reflexivity|]. exfalso. apply (Hsome p Hp). exact Ev.
Qed.

(** ** The abstract walk *)

Section Gen.
Variable view : snap -> edge -> cview.
Variable OK : snap -> Prop.
Variable good : snap -> edge -> Prop.
Variable den : snap -> edge -> lasg -> bool.

Hypothesis OK_WF : forall s, OK s -> WF s.
Hypothesis good_ref : forall s e, good s e -> ref_ok s (eref e).
Hypothesis view_err : forall s e, OK s -> good s e -> view s e <> CErr.
Hypothesis view_term : forall s e b, OK s -> good s e -> view s e = CTerm b ->
  rlevel s (eref e) = nlevels s /\ forall a, den s e a = b.
Hypothesis view_node : forall s e l t x, OK s -> good s e -> view s e = CNode l t x ->
  l = rlevel s (eref e) /\ l < nlevels s /\ good s t /\ good s x /\
  l < rlevel s (eref t) /\ l < rlevel s (eref x) /\
  (forall a, den s e a = if a l then den s t a else den s x a) /\
  (exists a, den s e a = true).
Hypothesis den_indep : forall s e l a b, OK s -> good s e -> l < rlevel s (eref e) ->
  den s e (updb a l b) = den s e a.

Notation isf := (is_false view).

Lemma isf_true : forall s e, OK s -> good s e -> isf s e = true -> forall a, den s e a = false.
Proof.
  intros s e O G. unfold is_false. destruct (view s e) as [|[|]|] eqn:Ev; try discriminate.
  intros _. apply (view_term s e false O G Ev).
Qed.

Lemma isf_false : forall s e, OK s -> good s e -> isf s e = false -> exists a, den s e a = true.
Proof.
  intros s e O G. unfold is_false. destruct (view s e) as [|[|]|l t x] eqn:Ev; try discriminate; intros _.
  - exfalso. apply (view_err s e O G Ev).
  - exists (fun _ => false). apply (view_term s e true O G Ev).
  - apply (view_node s e l t x O G Ev).
Qed.

Lemma isf_iff : forall s e, OK s -> good s e -> (isf s e = true <-> forall a, den s e a = false).
Proof.
  intros s e O G. split; [apply isf_true; assumption|].
  intros Hf. destruct (isf s e) eqn:E; [reflexivity|].
  destruct (isf_false s e O G E) as [a Ha]. rewrite Hf in Ha. discriminate.
Qed.

Variable add_lit : snap -> edge -> nat -> bool -> option (snap * edge).

Hypothesis add_lit_ok : forall s sub l c, OK s -> good s sub -> l < nlevels s ->
  l < rlevel s (eref sub) -> (exists a, den s sub a = true) ->
  exists s' r, add_lit s sub l c = Some (s', r) /\ OK s' /\ extends s s' /\ good s' r /\
    rlevel s' (eref r) = l /\ forall a, den s' r a = Bool.eqb (a l) c && den s sub a.

Section Choice.
Variable St : Type.
Variable choice : St -> nat -> edge -> bool * St.

(** the specification of the walk: a path from [e] to the true terminal on
    which every forced value is forced by a false cofactor and every other
    value is the answer of the choice function, called in path order *)
Inductive Run (s : snap) : St -> edge -> list step -> St -> Prop :=
| Run_end : forall st e, view s e = CTerm true -> Run s st e [] st
| Run_forced : forall st e l t x (c : bool) tr st',
    view s e = CNode l t x ->
    isf s (if c then x else t) = true ->
    Run s st (if c then t else x) tr st' ->
    Run s st e (mkStep l e (Some c) false :: tr) st'
| Run_asked : forall st e l t x (c : bool) st1 tr st',
    view s e = CNode l t x ->
    isf s t = false -> isf s x = false ->
    choice st l e = (c, st1) ->
    Run s st1 (if c then t else x) tr st' ->
    Run s st e (mkStep l e (Some c) true :: tr) st'.

Lemma decide_spec : forall s st e l t x, OK s -> good s e -> view s e = CNode l t x ->
  exists c asked st1, decide view St choice s st l e t x = (c, asked, st1) /\
    isf s (if c then t else x) = false /\
    if asked : bool then isf s t = false /\ isf s x = false /\ choice st l e = (c, st1)
    else isf s (if c then x else t) = true /\ st1 = st.
Proof.
  intros s st e l t x O G Ev.
  destruct (view_node s e l t x O G Ev) as [_ [_ [Gt [Gx [_ [_ [Hd [a Ha]]]]]]]].
  unfold decide. destruct (isf s t) eqn:Ft.
  - exists false, false, st. split; [reflexivity|]. simpl. split; [|split; [exact Ft | reflexivity]].
    destruct (isf s x) eqn:Fx; [|reflexivity]. exfalso.
    rewrite Hd, (isf_true s t O Gt Ft), (isf_true s x O Gx Fx) in Ha. destruct (a l); discriminate.
  - destruct (isf s x) eqn:Fx.
    + exists true, false, st. split; [reflexivity|]. simpl. split; [exact Ft | split; [exact Fx | reflexivity]].
    + destruct (choice st l e) as [c st1]. exists c, true, st1. split; [reflexivity|].
      split; [destruct c; assumption | auto].
Qed.

Lemma walk_run : forall fuel s st e, OK s -> good s e -> isf s e = false ->
  nlevels s - rlevel s (eref e) < fuel ->
  exists tr st', walk view St choice fuel s st e = Some (tr, st') /\ Run s st e tr st'.
Proof.
  induction fuel as [|f IH]; intros s st e O G Hnf Hf; [lia|].
  simpl. unfold is_false in Hnf.
  destruct (view s e) as [|b|l t x] eqn:Ev.
  - exfalso. apply (view_err s e O G Ev).
  - destruct b; [|discriminate]. exists [], st. split; [reflexivity | apply Run_end; exact Ev].
  - destruct (view_node s e l t x O G Ev) as [El [Ll [Gt [Gx [Lt [Lx _]]]]]].
    pose proof (rlevel_le s (OK_WF s O) (eref t)) as Bt.
    pose proof (rlevel_le s (OK_WF s O) (eref x)) as Bx.
    destruct (decide_spec s st e l t x O G Ev) as [c [asked [st1 [Ed [Fc Ha]]]]]. rewrite Ed.
    destruct (IH s st1 (if c then t else x) O ltac:(destruct c; assumption) Fc ltac:(destruct c; lia))
      as [tr [st' [W R]]].
    rewrite W. exists (mkStep l e (Some c) asked :: tr), st'. split; [reflexivity|].
    destruct asked.
    + destruct Ha as [Ft [Fx Ec]]. apply (Run_asked s st e l t x c st1 tr st' Ev); assumption.
    + destruct Ha as [Ff ->]. apply (Run_forced s st e l t x c tr st' Ev); assumption.
Qed.

(** levels strictly increase along a run, starting at the level of the edge *)
Lemma run_levels : forall s st e tr st', OK s -> Run s st e tr st' -> good s e ->
  incr_from (rlevel s (eref e)) (map sp_level tr) /\ forall p, In p tr -> sp_level p < nlevels s.
Proof.
  intros s st e tr st' O R. induction R as [st e Ev | st e l t x c tr st' Ev Ff R IH | st e l t x c st1 tr st' Ev Ft Fx Ec R IH];
    intros G.
  - split; [exact I | intros p []].
  - destruct (view_node s e l t x O G Ev) as [El [Ll [Gt [Gx [Lt [Lx _]]]]]].
    destruct (IH ltac:(destruct c; assumption)) as [A B]. split.
    + simpl. split; [lia|]. eapply incr_from_weaken; [exact A | destruct c; lia].
    + intros p [<-|Hp]; [exact Ll | apply B; exact Hp].
  - destruct (view_node s e l t x O G Ev) as [El [Ll [Gt [Gx [Lt [Lx _]]]]]].
    destruct (IH ltac:(destruct c; assumption)) as [A B]. split.
    + simpl. split; [lia|]. eapply incr_from_weaken; [exact A | destruct c; lia].
    + intros p [<-|Hp]; [exact Ll | apply B; exact Hp].
Qed.

Lemma run_nodup : forall s st e tr st', OK s -> Run s st e tr st' -> good s e -> NoDup (map sp_level tr).
Proof.
  intros s st e tr st' O R G. destruct (run_levels s st e tr st' O R G) as [A _].
  eapply incr_from_nodup; eauto.
Qed.

(** the function at the start of a run holds exactly... at least where the
    literals of the trace hold *)
Lemma run_implies : forall s st e tr st', OK s -> Run s st e tr st' -> good s e ->
  forall a, sat_trace a tr = true -> den s e a = true.
Proof.
  intros s st e tr st' O R. induction R as [st e Ev | st e l t x c tr st' Ev Ff R IH | st e l t x c st1 tr st' Ev Ft Fx Ec R IH];
    intros G a Hs.
  - apply (view_term s e true O G Ev).
  - destruct (view_node s e l t x O G Ev) as [El [Ll [Gt [Gx [Lt [Lx [Hd _]]]]]]].
    simpl in Hs. apply andb_true_iff in Hs. destruct Hs as [Hc Hs]. apply eqb_prop in Hc.
    rewrite Hd, Hc. destruct c; apply IH; assumption.
  - destruct (view_node s e l t x O G Ev) as [El [Ll [Gt [Gx [Lt [Lx [Hd _]]]]]]].
    simpl in Hs. apply andb_true_iff in Hs. destruct Hs as [Hc Hs]. apply eqb_prop in Hc.
    rewrite Hd, Hc. destruct c; apply IH; assumption.
Qed.

(** what is recorded about the calls of the choice function *)
Definition call_ok (s : snap) (p : step) : Prop :=
  exists t x c, view s (sp_edge p) = CNode (sp_level p) t x /\ sp_val p = Some c /\
    good s (sp_edge p) /\
    if sp_asked p then (exists a, den s t a = true) /\ (exists a, den s x a = true)
    else forall a, den s (if c then x else t) a = false.

Lemma run_calls : forall s st e tr st', OK s -> Run s st e tr st' -> good s e ->
  forall p, In p tr -> call_ok s p.
Proof.
  intros s st e tr st' O R. induction R as [st e Ev | st e l t x c tr st' Ev Ff R IH | st e l t x c st1 tr st' Ev Ft Fx Ec R IH];
    intros G p Hp.
  - destruct Hp.
  - destruct (view_node s e l t x O G Ev) as [El [Ll [Gt [Gx _]]]].
    destruct Hp as [<-|Hp]; [|apply IH; [destruct c; assumption | exact Hp]].
    exists t, x, c. simpl. split; [exact Ev|]. split; [reflexivity|]. split; [exact G|].
    apply isf_true; [exact O | destruct c; assumption | exact Ff].
  - destruct (view_node s e l t x O G Ev) as [El [Ll [Gt [Gx _]]]].
    destruct Hp as [<-|Hp]; [|apply IH; [destruct c; assumption | exact Hp]].
    exists t, x, c. simpl. split; [exact Ev|]. split; [reflexivity|]. split; [exact G|].
    split; apply isf_false; assumption.
Qed.

(** calling the choice function along the asked steps of a trace, threading
    its state: the answers and the final state *)
Fixpoint replay (st : St) (tr : list step) : list bool * St :=
  match tr with
  | [] => ([], st)
  | p :: r =>
    if sp_asked p then
      let (c, st1) := choice st (sp_level p) (sp_edge p) in
      let (cs, st') := replay st1 r in (c :: cs, st')
    else replay st r
  end.

(** the values recorded at the asked steps *)
Fixpoint asked_vals (tr : list step) : list bool :=
  match tr with
  | [] => []
  | p :: r =>
    if sp_asked p then
      match sp_val p with Some c => c :: asked_vals r | None => asked_vals r end
    else asked_vals r
  end.

Lemma run_answers : forall s st e tr st', Run s st e tr st' -> replay st tr = (asked_vals tr, st').
Proof.
  intros s st e tr st' R. induction R as [st e Ev | st e l t x c tr st' Ev Ff R IH | st e l t x c st1 tr st' Ev Ft Fx Ec R IH].
  - reflexivity.
  - simpl. exact IH.
  - simpl. rewrite Ec, IH. reflexivity.
Qed.

(** *** [pick_cube] *)

Lemma pick_cube_node : forall s st e l t x, OK s -> good s e -> view s e = CNode l t x ->
  exists cb tr st', pick_cube view St choice s st e = Some (Some (cb, tr, st')) /\
    Run s st e tr st' /\ length cb = nlevels s /\
    forall l, l < nlevels s ->
      cube_lit s cb l = match trace_val tr l with Some v => v | None => None end.
Proof.
  intros s st e l t x O G Ev. unfold pick_cube. rewrite Ev.
  assert (Hnf : isf s e = false) by (unfold is_false; rewrite Ev; reflexivity).
  pose proof (rlevel_le s (OK_WF s O) (eref e)).
  destruct (walk_run (S (nlevels s)) s st e O G Hnf ltac:(lia)) as [tr [st' [W R]]]. rewrite W.
  destruct (run_levels s st e tr st' O R G) as [A B].
  destruct (write_all_spec s (OK_WF s O) tr (repeat None (nlevels s)) (repeat_length _ _) B
              (incr_from_nodup _ _ A)) as [cb [Ew [Lc Wc]]].
  rewrite Ew. exists cb, tr, st'. split; [reflexivity|]. split; [exact R|]. split; [exact Lc|].
  intros l0 Hl. rewrite (Wc l0 Hl).
  destruct (trace_val tr l0); [reflexivity|]. apply cube_lit_repeat; [apply OK_WF; exact O | exact Hl].
Qed.

Theorem pick_cube_total : forall s st e, OK s -> good s e ->
  exists r, pick_cube view St choice s st e = Some r.
Proof.
  intros s st e O G. destruct (view s e) as [|[|]|l t x] eqn:Ev.
  - exfalso. apply (view_err s e O G Ev).
  - unfold pick_cube. rewrite Ev. eauto.
  - unfold pick_cube. rewrite Ev. eauto.
  - destruct (pick_cube_node s st e l t x O G Ev) as [cb [tr [st' [E _]]]]. eauto.
Qed.

Theorem pick_cube_none_iff : forall s st e, OK s -> good s e ->
  (pick_cube view St choice s st e = Some None <-> forall a, den s e a = false).
Proof.
  intros s st e O G. rewrite <- (isf_iff s e O G). unfold pick_cube, is_false.
  destruct (view s e) as [|[|]|l t x] eqn:Ev.
  - split; discriminate.
  - split; discriminate.
  - split; reflexivity.
  - split; [|discriminate].
    destruct (walk view St choice (S (nlevels s)) s st e) as [[tr st']|]; [|discriminate].
    destruct (write_all s tr (repeat None (nlevels s))); discriminate.
Qed.

Theorem pick_cube_some : forall s st e cb tr st', OK s -> good s e ->
  pick_cube view St choice s st e = Some (Some (cb, tr, st')) ->
  Run s st e tr st' /\ length cb = nlevels s /\
  forall l, l < nlevels s ->
    cube_lit s cb l = match trace_val tr l with Some v => v | None => None end.
Proof.
  intros s st e cb tr st' O G E. destruct (view s e) as [|[|]|l t x] eqn:Ev.
  4: { destruct (pick_cube_node s st e l t x O G Ev) as [cb0 [tr0 [st0 [E0 P]]]].
       rewrite E0 in E. inversion E; subst. exact P. }
  all: unfold pick_cube in E; rewrite Ev in E; try discriminate.
  inversion E; subst. split; [apply Run_end; exact Ev|].
  split; [apply repeat_length|]. intros l Hl. simpl. apply cube_lit_repeat; [apply OK_WF; exact O | exact Hl].
Qed.

(** an assignment agrees with the cube iff the literals of the trace hold *)
Lemma agrees_sat_trace : forall s a cb tr, NoDup (map sp_level tr) ->
  (forall p, In p tr -> sp_level p < nlevels s) ->
  (forall l, l < nlevels s ->
     cube_lit s cb l = match trace_val tr l with Some v => v | None => None end) ->
  (agrees s a cb <-> sat_trace a tr = true).
Proof.
  intros s a cb tr Hnd Hlv Hc. unfold agrees, sat_trace. rewrite forallb_forall. split.
  - intros Ha p Hp. destruct (sp_val p) as [c|] eqn:Ep; [|reflexivity].
    apply eqb_true_iff. apply (Ha (sp_level p) c (Hlv p Hp)).
    rewrite (Hc _ (Hlv p Hp)), (trace_val_in tr p Hnd Hp). exact Ep.
  - intros Hs l b Hl E. rewrite (Hc l Hl) in E.
    destruct (trace_val tr l) as [v|] eqn:Et; [|discriminate]. subst v.
    destruct (trace_val_some tr l _ Et) as [p [Hp [El Ev]]].
    specialize (Hs p Hp). rewrite Ev in Hs. apply eqb_prop in Hs. congruence.
Qed.

Theorem pick_cube_implicant : forall s st e cb tr st', OK s -> good s e ->
  pick_cube view St choice s st e = Some (Some (cb, tr, st')) ->
  forall a, agrees s a cb -> den s e a = true.
Proof.
  intros s st e cb tr st' O G E a Ha.
  destruct (pick_cube_some s st e cb tr st' O G E) as [R [Lc Wc]].
  destruct (run_levels s st e tr st' O R G) as [A B].
  apply (run_implies s st e tr st' O R G).
  apply (agrees_sat_trace s a cb tr (incr_from_nodup _ _ A) B Wc). exact Ha.
Qed.

Theorem pick_cube_dont_cares : forall s st e cb tr st', OK s -> good s e ->
  pick_cube view St choice s st e = Some (Some (cb, tr, st')) ->
  length (filter (fun l => match cube_lit s cb l with None => true | Some _ => false end)
                 (seq 0 (nlevels s))) = nlevels s - length tr.
Proof.
  intros s st e cb tr st' O G E.
  destruct (pick_cube_some s st e cb tr st' O G E) as [R [_ Wc]].
  destruct (run_levels s st e tr st' O R G) as [A C].
  apply (dont_care_count s cb tr (incr_from_nodup _ _ A) C); [|exact Wc].
  intros p Hp. destruct (run_calls s st e tr st' O R G p Hp) as [t [x [c [_ [Ev _]]]]].
  rewrite Ev. discriminate.
Qed.

(** *** [pick_cube_dd] *)

Lemma pick_dd_spec : forall fuel s st e, OK s -> good s e -> isf s e = false ->
  nlevels s - rlevel s (eref e) < fuel ->
  exists s' r tr st',
    pick_dd view St choice add_lit fuel s st e = Some (s', r, tr, st') /\
    walk view St choice fuel s st e = Some (tr, st') /\
    OK s' /\ extends s s' /\ good s' r /\ rlevel s' (eref r) = rlevel s (eref e) /\
    (forall a, den s' r a = sat_trace a tr) /\ (exists a, den s' r a = true).
Proof.
  induction fuel as [|f IH]; intros s st e O G Hnf Hf; [lia|].
  simpl. unfold is_false in Hnf.
  destruct (view s e) as [|b|l t x] eqn:Ev.
  - exfalso. apply (view_err s e O G Ev).
  - destruct b; [|discriminate]. exists s, e, [], st.
    split; [reflexivity|]. split; [reflexivity|]. split; [exact O|]. split; [apply extends_refl|].
    split; [exact G|]. split; [reflexivity|].
    destruct (view_term s e true O G Ev) as [_ Hd].
    split; [intros a; rewrite Hd; reflexivity | exists (fun _ => false); apply Hd].
  - destruct (view_node s e l t x O G Ev) as [El [Ll [Gt [Gx [Lt [Lx [Hd [a0 Ha0]]]]]]]].
    pose proof (rlevel_le s (OK_WF s O) (eref t)) as Bt.
    pose proof (rlevel_le s (OK_WF s O) (eref x)) as Bx.
    destruct (decide_spec s st e l t x O G Ev) as [c [asked [st1 [Ed [Fc _]]]]]. rewrite Ed.
    assert (Gc : good s (if c then t else x)) by (destruct c; assumption).
    assert (Lc : l < rlevel s (eref (if c then t else x))) by (destruct c; assumption).
    destruct (IH s st1 (if c then t else x) O Gc Fc ltac:(destruct c; lia))
      as [s1 [sub [tr [st2 [P [W [O1 [X1 [G1 [L1 [D1 [a1 Ha1]]]]]]]]]]]].
    rewrite P, W.
    destruct (add_lit_ok s1 sub l c O1 G1 ltac:(rewrite (ext_nlevels _ _ X1); exact Ll)
                ltac:(rewrite L1; exact Lc) (ex_intro _ a1 Ha1))
      as [s2 [r [Ea [O2 [X2 [G2 [L2 D2]]]]]]].
    rewrite Ea. exists s2, r, (mkStep l e (Some c) asked :: tr), st2.
    split; [reflexivity|]. split; [reflexivity|]. split; [exact O2|].
    split; [eapply extends_trans; eauto|]. split; [exact G2|].
    split; [rewrite L2; exact El|]. split.
    + intros a. rewrite D2, D1. reflexivity.
    + exists (updb a1 l c). rewrite D2, updb_same, eqb_reflx. simpl.
      rewrite den_indep; [exact Ha1 | exact O1 | exact G1 | rewrite L1; exact Lc].
Qed.

(** [pick_cube] and [pick_cube_dd] describe the same cube: same trace (same
    calls of the choice function, same final state), and the diagram holds
    exactly under the assignments that agree with the vector *)
Theorem pick_dd_same_cube : forall s st e cb tr st', OK s -> good s e ->
  pick_cube view St choice s st e = Some (Some (cb, tr, st')) ->
  exists s' r,
    pick_cube_dd view St choice add_lit s st e = Some (s', r, tr, st') /\
    OK s' /\ extends s s' /\ good s' r /\
    forall a, den s' r a = true <-> agrees s a cb.
Proof.
  intros s st e cb tr st' O G E.
  destruct (pick_cube_some s st e cb tr st' O G E) as [R [Lc Wc]].
  destruct (run_levels s st e tr st' O R G) as [A B].
  assert (Hnf : isf s e = false).
  { destruct (isf s e) eqn:F; [|reflexivity]. exfalso.
    pose proof (proj2 (pick_cube_none_iff s st e O G) (isf_true s e O G F)). congruence. }
  pose proof (rlevel_le s (OK_WF s O) (eref e)).
  destruct (pick_dd_spec (S (nlevels s)) s st e O G Hnf ltac:(lia))
    as [s' [r [tr0 [st0 [P [W [O' [X [G' [L' [D' _]]]]]]]]]]].
  (* the trace of pick_cube is the trace of the walk *)
  assert (tr0 = tr /\ st0 = st').
  { unfold pick_cube in E. unfold is_false in Hnf.
    destruct (view s e) as [|[|]|l t x] eqn:Ev; try discriminate.
    - inversion E; subst. simpl in W. rewrite Ev in W. inversion W. auto.
    - rewrite W in E. destruct (write_all s tr0 (repeat None (nlevels s))); [|discriminate].
      inversion E. auto. }
  destruct H0 as [-> ->].
  exists s', r. split; [exact P|]. split; [exact O'|]. split; [exact X|]. split; [exact G'|].
  intros a. rewrite D'. symmetry.
  apply (agrees_sat_trace s a cb tr (incr_from_nodup _ _ A) B Wc).
Qed.

(** the false function: [pick_cube] returns nothing, [pick_cube_dd] the edge itself *)
Theorem pick_dd_false : forall s st e, OK s -> good s e ->
  pick_cube view St choice s st e = Some None ->
  pick_cube_dd view St choice add_lit s st e = Some (s, e, [], st).
Proof.
  intros s st e O G E. unfold pick_cube in E. unfold pick_cube_dd. cbn [pick_dd].
  destruct (view s e) as [|[|]|l t x] eqn:Ev; try discriminate; [reflexivity|].
  destruct (walk view St choice (S (nlevels s)) s st e) as [[tr st']|]; [|discriminate].
  destruct (write_all s tr (repeat None (nlevels s))); discriminate.
Qed.

End Choice.

(** with the stateless level-indexed choice of the harness (and of
    [pick_cube_dd_set]) the value at every asked step is the table's entry *)
Lemma run_mask_vals : forall m s st e tr st', Run unit (mask_choice m) s st e tr st' ->
  forall p, In p tr -> sp_asked p = true -> sp_val p = Some (m (sp_level p)).
Proof.
  intros m s st e tr st' R.
  induction R as [st e Ev | st e l t x c tr st' Ev Ff R IH | st e l t x c st1 tr st' Ev Ft Fx Ec R IH];
    intros p Hp Ha.
  - destruct Hp.
  - destruct Hp as [<-|Hp]; [discriminate | apply IH; assumption].
  - destruct Hp as [<-|Hp]; [|apply IH; assumption].
    simpl. unfold mask_choice in Ec. inversion Ec. reflexivity.
Qed.

(** *** [pick_cube_dd_set] with a literal set that is a cube diagram *)

(** [set] is the diagram of the conjunction of the literals [L] (top-down) *)
Inductive CubeAt (s : snap) : edge -> list (nat * bool) -> Prop :=
| CA_end : forall e, view s e = CTerm true -> CubeAt s e []
| CA_neg : forall e l t x L, view s e = CNode l t x -> isf s t = true ->
    CubeAt s x L -> CubeAt s e ((l, false) :: L)
| CA_pos : forall e l t x L, view s e = CNode l t x -> isf s t = false -> isf s x = true ->
    CubeAt s t L -> CubeAt s e ((l, true) :: L).

Lemma cube_lits_CubeAt : forall fuel s e L, cube_lits view fuel s e = Some L -> CubeAt s e L.
Proof.
  induction fuel as [|f IH]; intros s e L E; simpl in E; [discriminate|].
  destruct (view s e) as [|b|l t x] eqn:Ev; [discriminate| |].
  - destruct b; [|discriminate]. inversion E. apply CA_end. exact Ev.
  - destruct (isf s t) eqn:Ft.
    + destruct (cube_lits view f s x) as [L'|] eqn:El; [|discriminate]. simpl in E. inversion E.
      eapply CA_neg; eauto.
    + destruct (isf s x) eqn:Fx; [|discriminate].
      destruct (cube_lits view f s t) as [L'|] eqn:El; [|discriminate]. simpl in E. inversion E.
      eapply CA_pos; eauto.
Qed.

Lemma CubeAt_nonfalse : forall s e L, CubeAt s e L -> isf s e = false.
Proof.
  intros s e L C. unfold is_false. destruct C as [e Ev | e l t x L Ev _ _ | e l t x L Ev _ _ _]; rewrite Ev; reflexivity.
Qed.

Lemma CubeAt_levels : forall s e L, OK s -> CubeAt s e L -> good s e ->
  forall l b, In (l, b) L -> rlevel s (eref e) <= l.
Proof.
  intros s e L O C. induction C as [e Ev | e l t x L Ev Ft C IH | e l t x L Ev Ft Fx C IH]; intros G l0 b Hin.
  - destruct Hin.
  - destruct (view_node s e l t x O G Ev) as [El [Ll [Gt [Gx [Lt [Lx _]]]]]].
    destruct Hin as [Hin|Hin]; [inversion Hin; lia|]. specialize (IH Gx l0 b Hin). lia.
  - destruct (view_node s e l t x O G Ev) as [El [Ll [Gt [Gx [Lt [Lx _]]]]]].
    destruct Hin as [Hin|Hin]; [inversion Hin; lia|]. specialize (IH Gt l0 b Hin). lia.
Qed.

Lemma lit_pol_absent : forall L l, (forall l' b, In (l', b) L -> l < l') -> lit_pol L l = false.
Proof.
  induction L as [|[l0 b0] r IH]; intros l Hl; simpl; [reflexivity|].
  destruct (Nat.eqb_spec l0 l) as [E|_].
  - specialize (Hl l0 b0 (or_introl eq_refl)). lia.
  - apply IH. intros l' b Hin. apply (Hl l' b). right. exact Hin.
Qed.

Lemma pop_cube : forall fuel s set L until, OK s -> good s set -> CubeAt s set L ->
  nlevels s - rlevel s (eref set) < fuel -> until <= nlevels s ->
  exists set' L', pop view fuel s set until = Some set' /\ good s set' /\ CubeAt s set' L' /\
    until <= rlevel s (eref set') /\ forall l, until <= l -> lit_pol L' l = lit_pol L l.
Proof.
  induction fuel as [|f IH]; intros s set L until O G C Hf Hu; [lia|].
  simpl. destruct C as [e Ev | e l t x L Ev Ft C | e l t x L Ev Ft Fx C].
  - rewrite Ev. exists e, []. split; [reflexivity|]. split; [exact G|]. split; [apply CA_end; exact Ev|].
    split; [rewrite (proj1 (view_term s e true O G Ev)); exact Hu | reflexivity].
  - rewrite Ev. destruct (view_node s e l t x O G Ev) as [El [Ll [Gt [Gx [Lt [Lx _]]]]]].
    pose proof (rlevel_le s (OK_WF s O) (eref x)).
    destruct (Nat.ltb_spec l until) as [Hlt|Hge].
    + rewrite Ft. destruct (IH s x L until O Gx C ltac:(lia) Hu) as [set' [L' [P [G' [C' [U' Hp]]]]]].
      exists set', L'. split; [exact P|]. split; [exact G'|]. split; [exact C'|]. split; [exact U'|].
      intros l0 Hl0. rewrite (Hp l0 Hl0). simpl. destruct (Nat.eqb_spec l l0); [lia | reflexivity].
    + exists e, ((l, false) :: L). split; [reflexivity|]. split; [exact G|].
      split; [eapply CA_neg; eauto|]. split; [lia | reflexivity].
  - rewrite Ev. destruct (view_node s e l t x O G Ev) as [El [Ll [Gt [Gx [Lt [Lx _]]]]]].
    pose proof (rlevel_le s (OK_WF s O) (eref t)).
    destruct (Nat.ltb_spec l until) as [Hlt|Hge].
    + rewrite Ft. destruct (IH s t L until O Gt C ltac:(lia) Hu) as [set' [L' [P [G' [C' [U' Hp]]]]]].
      exists set', L'. split; [exact P|]. split; [exact G'|]. split; [exact C'|]. split; [exact U'|].
      intros l0 Hl0. rewrite (Hp l0 Hl0). simpl. destruct (Nat.eqb_spec l l0); [lia | reflexivity].
    + exists e, ((l, true) :: L). split; [reflexivity|]. split; [exact G|].
      split; [eapply CA_pos; eauto|]. split; [lia | reflexivity].
Qed.

Lemma set_choice_cube : forall s set L l, OK s -> good s set -> CubeAt s set L -> l < nlevels s ->
  exists set' L', set_choice view s set l = Some (set', lit_pol L l) /\ good s set' /\ CubeAt s set' L' /\
    forall l', l < l' -> lit_pol L' l' = lit_pol L l'.
Proof.
  intros s set L l O G C Hl. unfold set_choice.
  pose proof (rlevel_le s (OK_WF s O) (eref set)).
  destruct (pop_cube (S (nlevels s)) s set L l O G C ltac:(lia) ltac:(lia)) as [set1 [L1 [P [G1 [C1 [U1 Hp]]]]]].
  rewrite P, <- (Hp l (le_n _)).
  destruct C1 as [e Ev | e l1 t x L1 Ev Ft C1 | e l1 t x L1 Ev Ft Fx C1]; rewrite Ev.
  - exists e, []. split; [reflexivity|]. split; [exact G1|]. split; [apply CA_end; exact Ev|].
    intros l' Hl'. rewrite <- (Hp l') by lia. reflexivity.
  - destruct (view_node s e l1 t x O G1 Ev) as [El [Ll [Gt [Gx [Lt [Lx _]]]]]].
    destruct (Nat.eqb_spec l1 l) as [->|Hne].
    + rewrite (CubeAt_nonfalse s x L1 C1). simpl. rewrite Nat.eqb_refl.
      exists x, L1. split; [reflexivity|]. split; [exact Gx|]. split; [exact C1|].
      intros l' Hl'. rewrite <- (Hp l') by lia. simpl. destruct (Nat.eqb_spec l l'); [lia | reflexivity].
    + rewrite (lit_pol_absent ((l1, false) :: L1) l).
      * exists e, ((l1, false) :: L1). split; [reflexivity|]. split; [exact G1|].
        split; [eapply CA_neg; eauto|]. intros l' Hl'. apply Hp. lia.
      * intros l' b [Hin|Hin]; [inversion Hin; lia|].
        pose proof (CubeAt_levels s x L1 O C1 Gx l' b Hin). lia.
  - destruct (view_node s e l1 t x O G1 Ev) as [El [Ll [Gt [Gx [Lt [Lx _]]]]]].
    destruct (Nat.eqb_spec l1 l) as [->|Hne].
    + rewrite Fx. simpl. rewrite Nat.eqb_refl.
      exists t, L1. split; [reflexivity|]. split; [exact Gt|]. split; [exact C1|].
      intros l' Hl'. rewrite <- (Hp l') by lia. simpl. destruct (Nat.eqb_spec l l'); [lia | reflexivity].
    + rewrite (lit_pol_absent ((l1, true) :: L1) l).
      * exists e, ((l1, true) :: L1). split; [reflexivity|]. split; [exact G1|].
        split; [eapply CA_pos; eauto|]. intros l' Hl'. apply Hp. lia.
      * intros l' b [Hin|Hin]; [inversion Hin; lia|].
        pose proof (CubeAt_levels s t L1 O C1 Gt l' b Hin). lia.
Qed.

(** forget the (trivial) state of the level-indexed choice *)
Definition drop_st (r : option (snap * edge * list step * unit)) : option (snap * edge * list step) :=
  match r with Some (s', e, tr, _) => Some (s', e, tr) | None => None end.

Lemma pick_dd_set_eq_gen : forall L fuel s e set Lc, OK s -> good s e -> good s set -> CubeAt s set Lc ->
  (forall l, rlevel s (eref e) <= l -> lit_pol Lc l = lit_pol L l) ->
  pick_dd_set view add_lit fuel s e set =
  drop_st (pick_dd view unit (mask_choice (lit_pol L)) add_lit fuel s tt e).
Proof.
  intros L. induction fuel as [|f IH]; intros s e set Lc O G Gs C Hl; [reflexivity|].
  simpl. destruct (view s e) as [|b|l t x] eqn:Ev; try reflexivity.
  destruct (view_node s e l t x O G Ev) as [El [Ll [Gt [Gx [Lt [Lx _]]]]]].
  destruct (set_choice_cube s set Lc l O Gs C Ll) as [set' [L' [Es [G' [C' Hp]]]]].
  rewrite Es, (Hl l ltac:(lia)). unfold decide, mask_choice.
  assert (Hrec : forall c : bool,
    pick_dd_set view add_lit f s (if c then t else x) set' =
    drop_st (pick_dd view unit (mask_choice (lit_pol L)) add_lit f s tt (if c then t else x))).
  { intros c. apply (IH s (if c then t else x) set' L' O ltac:(destruct c; assumption) G' C').
    intros l0 Hl0. rewrite (Hp l0) by (destruct c; lia). apply Hl. destruct c; lia. }
  destruct (isf s t).
  - rewrite (Hrec false). unfold mask_choice.
    destruct (pick_dd view unit _ add_lit f s tt x) as [[[[s1 sub] tr] []]|]; [|reflexivity].
    simpl. destruct (add_lit s1 sub l false) as [[s2 r]|]; reflexivity.
  - destruct (isf s x).
    + rewrite (Hrec true). unfold mask_choice.
      destruct (pick_dd view unit _ add_lit f s tt t) as [[[[s1 sub] tr] []]|]; [|reflexivity].
      simpl. destruct (add_lit s1 sub l true) as [[s2 r]|]; reflexivity.
    + rewrite (Hrec (lit_pol L l)). unfold mask_choice.
      destruct (pick_dd view unit _ add_lit f s tt (if lit_pol L l then t else x)) as [[[[s1 sub] tr] []]|]; [|reflexivity].
      simpl. destruct (add_lit s1 sub l (lit_pol L l)) as [[s2 r]|]; reflexivity.
Qed.

(** [pick_cube_dd_set] = [pick_cube_dd] with the choice "polarity of the
    level's variable in the literal set, false if it does not occur" *)
Theorem pick_dd_set_eq : forall s e set L, OK s -> good s e -> good s set ->
  cube_lits view (S (nlevels s)) s set = Some L ->
  pick_cube_dd_set view add_lit s e set =
  drop_st (pick_cube_dd view unit (mask_choice (lit_pol L)) add_lit s tt e).
Proof.
  intros s e set L O G Gs E. unfold pick_cube_dd_set, pick_cube_dd.
  apply (pick_dd_set_eq_gen L (S (nlevels s)) s e set L O G Gs (cube_lits_CubeAt _ _ _ _ E)).
  reflexivity.
Qed.

(** the literal set denotes the conjunction of its literals *)
Lemma CubeAt_den : forall s e L, OK s -> CubeAt s e L -> good s e ->
  forall a, den s e a = forallb (fun p : nat * bool => Bool.eqb (a (fst p)) (snd p)) L.
Proof.
  intros s e L O C. induction C as [e Ev | e l t x L Ev Ft C IH | e l t x L Ev Ft Fx C IH]; intros G a.
  - apply (view_term s e true O G Ev).
  - destruct (view_node s e l t x O G Ev) as [El [Ll [Gt [Gx [Lt [Lx [Hd _]]]]]]].
    rewrite Hd. simpl. rewrite <- (IH Gx a), (isf_true s t O Gt Ft). destruct (a l); reflexivity.
  - destruct (view_node s e l t x O G Ev) as [El [Ll [Gt [Gx [Lt [Lx [Hd _]]]]]]].
    rewrite Hd. simpl. rewrite <- (IH Gt a), (isf_true s x O Gx Fx). destruct (a l); reflexivity.
Qed.

(** *** The probability of a trace under [pick_cube_uniform] *)

Section Weight.
Variable count : snap -> edge -> N.
Hypothesis count_term : forall s e b, OK s -> good s e -> view s e = CTerm b ->
  count s e = if b then (2 ^ N.of_nat (nlevels s))%N else 0%N.
Hypothesis count_node : forall s e l t x, OK s -> good s e -> view s e = CNode l t x ->
  (count s t + count s x = 2 * count s e)%N.

Lemma count_false : forall s e, OK s -> good s e -> isf s e = true -> count s e = 0%N.
Proof.
  intros s e O G. unfold is_false. destruct (view s e) as [|[|]|] eqn:Ev; try discriminate.
  intros _. apply (count_term s e false O G Ev).
Qed.

(** for every run (whatever the choice function answers): numerator and
    denominator of the product of the branch probabilities are positive and
      num / den = 2^(nlevels - number of literals) / count(e) *)
Theorem run_weight : forall St choice s st e tr st', OK s -> Run St choice s st e tr st' -> good s e ->
  let (num, dn) := trace_weight view count s tr in
  (0 < num /\ 0 < dn /\ 0 < count s e /\
   num * count s e * 2 ^ N.of_nat (length tr) = dn * 2 ^ N.of_nat (nlevels s))%N.
Proof.
  intros St choice s st e tr st' O R.
  induction R as [st e Ev | st e l t x c tr st' Ev Ff R IH | st e l t x c st1 tr st' Ev Ft Fx Ec R IH]; intros G.
  - simpl. rewrite (count_term s e true O G Ev). pose proof (pow2_pos (N.of_nat (nlevels s))).
    change (2 ^ N.of_nat 0)%N with 1%N. lia.
  - destruct (view_node s e l t x O G Ev) as [El [Ll [Gt [Gx _]]]].
    pose proof (count_node s e l t x O G Ev) as Hn.
    assert (G' : good s (if c then t else x)) by (destruct c; assumption).
    assert (Z : count s (if c then x else t) = 0%N)
      by (apply count_false; [exact O | destruct c; assumption | exact Ff]).
    specialize (IH G'). cbn [trace_weight sp_asked].
    destruct (trace_weight view count s tr) as [num dn]. destruct IH as [A [B [C D]]].
    assert (Hc : (count s (if c then t else x) = 2 * count s e)%N) by (destruct c; lia).
    cbn [length]. rewrite pow2_S. rewrite Hc in C, D. split; [exact A|]. split; [exact B|].
    split; [lia|]. lia.
  - destruct (view_node s e l t x O G Ev) as [El [Ll [Gt [Gx _]]]].
    pose proof (count_node s e l t x O G Ev) as Hn.
    assert (G' : good s (if c then t else x)) by (destruct c; assumption).
    specialize (IH G'). cbn [trace_weight sp_asked sp_edge sp_val]. rewrite Ev.
    destruct (trace_weight view count s tr) as [num dn]. destruct IH as [A [B [C D]]].
    cbn [length]. rewrite pow2_S, Hn.
    assert (P : (0 < count s e)%N) by (destruct c; lia).
    split; [apply N.mul_pos_pos; assumption|]. split; [apply N.mul_pos_pos; lia|].
    split; [exact P|].
    replace (num * count s (if c then t else x) * count s e * (2 * 2 ^ N.of_nat (length tr)))%N
      with ((num * count s (if c then t else x) * 2 ^ N.of_nat (length tr)) * (2 * count s e))%N by lia.
    rewrite D. lia.
Qed.

End Weight.

Section Extend.
Hypothesis den_extends : forall s s' e a, OK s -> OK s' -> extends s s' -> good s e ->
  den s' e a = den s e a.

Theorem pick_dd_implicant : forall St choice s st e s' r tr st', OK s -> good s e ->
  pick_cube_dd view St choice add_lit s st e = Some (s', r, tr, st') ->
  OK s' /\ extends s s' /\ good s' r /\
  (forall a, den s' r a = true -> den s' e a = true) /\
  ((forall a, den s' r a = false) <-> (forall a, den s e a = false)).
Proof.
  intros St choice s st e s' r tr st' B G E.
  destruct (pick_cube_total St choice s st e B G) as [[[[cb tr0] st0]|] Ep].
  - destruct (pick_dd_same_cube St choice s st e cb tr0 st0 B G Ep) as [s1 [r1 [P [B1 [X1 [G1 D1]]]]]].
    rewrite P in E. inversion E; subst.
    split; [exact B1|]. split; [exact X1|]. split; [exact G1|]. split.
    + intros a Ha. rewrite (den_extends s s' e a B B1 X1 G).
      apply (pick_cube_implicant St choice s st e cb tr st' B G Ep). apply D1. exact Ha.
    + split.
      * intros Hf. exfalso.
        destruct (pick_cube_some St choice s st e cb tr st' B G Ep) as [R [Lc Wc]].
        (* the assignment that follows the trace satisfies the cube *)
        set (a := fun l => match trace_val tr l with Some (Some c) => c | _ => false end).
        assert (Ha : agrees s a cb).
        { intros l b Hl Ec. rewrite (Wc l Hl) in Ec. unfold a.
          destruct (trace_val tr l) as [[c|]|]; try discriminate. congruence. }
        apply D1 in Ha. rewrite Hf in Ha. discriminate.
      * intros Hf. exfalso.
        pose proof (proj2 (pick_cube_none_iff St choice s st e B G) Hf). congruence.
  - rewrite (pick_dd_false St choice s st e B G Ep) in E. inversion E; subst.
    split; [exact B|]. split; [apply extends_refl|]. split; [exact G|]. split; [auto|]. tauto.
Qed.

Theorem pick_dd_set_ok : forall s e set L s' r tr, OK s -> good s e -> good s set ->
  cube_lits view (S (nlevels s)) s set = Some L ->
  pick_cube_dd_set view add_lit s e set = Some (s', r, tr) ->
  OK s' /\ extends s s' /\ good s' r /\
  (forall a, den s' r a = true -> den s' e a = true) /\
  ((forall a, den s' r a = false) <-> (forall a, den s e a = false)) /\
  ((exists a0, den s e a0 = true) -> forall a, den s' r a = sat_trace a tr) /\
  forall p, In p tr -> call_ok s p /\
    (sp_asked p = true -> sp_val p = Some (lit_pol L (sp_level p))).
Proof.
  intros s e set L s' r tr B G Gs El E. set (ch := mask_choice (lit_pol L)).
  rewrite (pick_dd_set_eq s e set L B G Gs El) in E. fold ch in E.
  destruct (pick_cube_dd view unit ch add_lit s tt e) as [[[[s1 r1] tr1] []]|] eqn:Ed;
    [|discriminate]. simpl in E. inversion E; subst s1 r1 tr1. clear E.
  destruct (pick_dd_implicant unit ch s tt e s' r tr tt B G Ed) as [B' [X [G' [Hi Hf]]]].
  split; [exact B'|]. split; [exact X|]. split; [exact G'|]. split; [exact Hi|]. split; [exact Hf|].
  destruct (pick_cube_total unit ch s tt e B G) as [[[[cb tr0] []]|] Ep].
  - destruct (pick_dd_same_cube unit ch s tt e cb tr0 tt B G Ep) as [s2 [r2 [P [_ [_ [_ D]]]]]].
    rewrite Ed in P. inversion P; subst s2 r2 tr0. clear P.
    destruct (pick_cube_some unit ch s tt e cb tr tt B G Ep) as [R [Lc Wc]].
    destruct (run_levels unit ch s tt e tr tt B R G) as [A C].
    split.
    + intros _ a. apply eq_true_iff_eq. rewrite D.
      apply (agrees_sat_trace s a cb tr (incr_from_nodup _ _ A) C Wc).
    + intros p Hp. split.
      * apply (run_calls unit ch s tt e tr tt B R G p Hp).
      * apply (run_mask_vals (lit_pol L) s tt e tr tt R p Hp).
  - rewrite (pick_dd_false unit ch s tt e B G Ep) in Ed.
    inversion Ed; subst. split; [|intros p []].
    intros [a0 Ha0]. rewrite (proj1 (pick_cube_none_iff unit ch s' tt r B G) Ep) in Ha0.
    discriminate.
Qed.

End Extend.

End Gen.
