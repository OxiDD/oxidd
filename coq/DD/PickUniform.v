(** * The branch rule of [pick_cube_uniform]

    [uni_choice] answers "then" iff  p / q < count(then) / (count(then) +
    count(else))  for the next draw [p / q] of the random stream.  Counting
    lemma: among the [q] equally likely draws 0/q .. (q-1)/q, with [q] a
    multiple [m * (ct + ce)] of the total weight, exactly [m * ct] take the
    then-branch, i.e. the fraction ct / (ct + ce).  Together with
    [run_weight] / [runz_weight] (product of these fractions along a trace =
    2^(don't cares) / #models) this is the "without bias" clause for exact
    branch weights; the floating-point arithmetic and the generator of the
    real code are outside the model. *)

From Coq Require Import List NArith PArith Bool Arith Lia.
From OxiVerif Require Import DD.Table DD.TableProofs DD.ApplyProofs DD.Pick DD.PickProofs DD.PickBdd DD.PickBcdd.
Import ListNotations.

Arguments N.add : simpl never.
Arguments N.mul : simpl never.

Lemma uni_choice_spec : forall view count draws s k l e l' t x p q,
  view s e = CNode l' t x -> draws k = (p, q) ->
  uni_choice view count draws s k l e =
  ((p * (count s t + count s x) <? count s t * q)%N, S k).
Proof. intros view count draws s k l e l' t x p q Ev Ed. unfold uni_choice. rewrite Ev, Ed. reflexivity. Qed.

Lemma filter_ltb_seq : forall k q, length (filter (fun p => p <? k) (seq 0 q)) = Nat.min k q.
Proof.
  intros k. induction q as [|q IH]; [rewrite Nat.min_0_r; reflexivity|].
  rewrite seq_S, filter_app, app_length, IH. simpl.
  destruct (Nat.ltb_spec q k); simpl; lia.
Qed.

Theorem uni_branch_fraction : forall ct ce m : N, (0 < ct + ce)%N ->
  N.of_nat (length (filter (fun p => (N.of_nat p * (ct + ce) <? ct * (m * (ct + ce)))%N)
                           (seq 0 (N.to_nat (m * (ct + ce)))))) = (m * ct)%N.
Proof.
  intros ct ce m Hpos.
  rewrite (filter_ext_len _ (fun p => p <? N.to_nat (m * ct))).
  - rewrite filter_ltb_seq, Nat.min_l by nia. apply N2Nat.id.
  - intros p _.
    replace (ct * (m * (ct + ce)))%N with ((m * ct) * (ct + ce))%N by lia.
    destruct (N.ltb_spec (N.of_nat p * (ct + ce)) (m * ct * (ct + ce))) as [Hlt|Hge];
      destruct (Nat.ltb_spec p (N.to_nat (m * ct))) as [Hlt'|Hge']; try reflexivity; exfalso.
    + apply N.mul_lt_mono_pos_r in Hlt; [lia | exact Hpos].
    + apply N.mul_le_mono_pos_r in Hge; [lia | exact Hpos].
Qed.

Theorem pick_cube_bdd_dont_cares : forall St choice s st e cb tr st', BddOK s -> good_bdd s e ->
  pick_cube_bdd St choice s st e = Some (Some (cb, tr, st')) ->
  length (filter (fun l => match cube_lit s cb l with None => true | Some _ => false end)
                 (seq 0 (nlevels s))) = nlevels s - length tr.
Proof.
  intros St choice s st e cb tr st' B G E.
  eapply (pick_cube_dont_cares view_plain BddOK good_bdd den_bdd); try bdd_inst; eassumption.
Qed.

Theorem pick_cube_bcdd_dont_cares : forall St choice s st e cb tr st', BcddOK s -> good_bcdd s e ->
  pick_cube_bcdd St choice s st e = Some (Some (cb, tr, st')) ->
  length (filter (fun l => match cube_lit s cb l with None => true | Some _ => false end)
                 (seq 0 (nlevels s))) = nlevels s - length tr.
Proof.
  intros St choice s st e cb tr st' B G E.
  eapply (pick_cube_dont_cares view_bcdd BcddOK good_bcdd den_bcdd); try bcdd_inst; eassumption.
Qed.
