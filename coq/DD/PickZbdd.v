(** * Cube picking on ZBDDs

    The ZBDD walks have their own text (DD/Pick.v: [walk_z], [pick_dd_z],
    [pick_dd_set_z]): a node with [hi == lo] is a don't care, [hi] is never
    Empty, a level that is skipped forces its variable to false.

    [ZbddOK]: well-formed ZBDD table with the terminals Empty (code 0) and Base
    (code 1).  [den_z s e] is [fun_zbdd s (eref e)]: the Boolean function over
    all levels denoted by the edge ([semz] from level 0); [Fz s L r] (from
    DD/SatCountProofs.v) is the same from level [L] on.

    - [PathZ]: a path through the diagram with the value chosen at every node;
      [pathz_sem]: every assignment that has the path's literals and is false
      on all other levels from [L] on satisfies [Fz s L];
    - [RunZ]: the specification of [walk_z]; [walk_z_run];
    - [pick_cube_z_*]: totality, nothing iff unsatisfiable, implicant, cube
      entries, calls of the choice function;
    - [pick_dd_z_*]: the diagram built by [pick_cube_dd] denotes exactly the
      cube of [pick_cube] with the same choices;
    - [pick_dd_set_z_*]: the result of [pick_cube_dd_set] is a cube that
      implies the function, and how the literal set decides;
    - [runz_weight]: probability of a trace = 2^(don't cares) / #models. *)

From Coq Require Import List NArith PArith Bool Arith Lia FMapPositive.
From OxiVerif Require Import Base.ListFacts DD.Table DD.TableProofs DD.Canon DD.CanonZbdd DD.Build DD.BuildProofs DD.Apply
  DD.ApplyProofs DD.SatCount DD.SatCountProofs DD.Pick DD.PickProofs DD.PickInsert DD.PickBdd.
Import ListNotations.

Arguments N.add : simpl never.
Arguments N.mul : simpl never.
Arguments N.pow : simpl never.

Record ZbddOK (s : snap) : Prop := mkZbddOK {
  zo_wf : WF s;
  zo_kind : s_kind s = KZbdd;
  zo_codes : forall t v, term_val s t = Some v -> v = 0%N \/ v = 1%N;
  zo_empty : exists t, term_val s t = Some 0%N;
  zo_base : exists t, term_val s t = Some 1%N
}.

Theorem zbdd_ok_b_spec : forall s, zbdd_ok_b s = true <-> ZbddOK s.
Proof.
  intros s. unfold zbdd_ok_b. rewrite !andb_true_iff, wf_b_spec, forallb_forall, !existsb_exists.
  split.
  - intros [[[[H Hk] Hc] [p0 [I0 E0]]] [p1 [I1 E1]]].
    apply N.eqb_eq in E0. apply N.eqb_eq in E1. destruct p0 as [t0 v0], p1 as [t1 v1]. simpl in *. subst.
    constructor; auto.
    + destruct (s_kind s); simpl in Hk; congruence.
    + intros t v E. apply assoc_N_In in E. specialize (Hc _ E). simpl in Hc.
      apply N.leb_le in Hc. lia.
    + exists t0. apply In_assoc_N; [apply (wf_term_ids s H) | exact I0].
    + exists t1. apply In_assoc_N; [apply (wf_term_ids s H) | exact I1].
  - intros B. pose proof (zo_wf s B) as H.
    destruct (zo_empty s B) as [t0 E0]. destruct (zo_base s B) as [t1 E1].
    split; [split; [split; [split|]|]|].
    + exact H.
    + rewrite (zo_kind s B). reflexivity.
    + intros [t v] Hin. simpl. apply N.leb_le.
      assert (E : term_val s t = Some v) by (apply In_assoc_N; [apply (wf_term_ids s H) | exact Hin]).
      destruct (zo_codes s B t v E); lia.
    + exists (t0, 0%N). split; [apply assoc_N_In; exact E0 | reflexivity].
    + exists (t1, 1%N). split; [apply assoc_N_In; exact E1 | reflexivity].
Qed.

Definition good_z (s : snap) (e : edge) : Prop := ref_ok s (eref e) /\ etag e = false.
Definition den_z (s : snap) (e : edge) : lasg -> bool := fun_zbdd s (eref e).

Notation isfz := (is_false view_plain).

Lemma zbddok_extends : forall s s', ZbddOK s -> extends s s' -> WF s' -> ZbddOK s'.
Proof.
  intros s s' B X W. constructor.
  - exact W.
  - rewrite (ext_kind _ _ X). apply (zo_kind s B).
  - intros t v. rewrite (ext_term_val _ _ t X). apply (zo_codes s B).
  - destruct (zo_empty s B) as [t E]. exists t. rewrite (ext_term_val _ _ t X). exact E.
  - destruct (zo_base s B) as [t E]. exists t. rewrite (ext_term_val _ _ t X). exact E.
Qed.

(** ** Semantics along the levels *)

Lemma Fz_ext : forall s L r a a', (forall l, L <= l -> a l = a' l) -> Fz s L r a = Fz s L r a'.
Proof.
  intros s L r a a' Ha. unfold Fz. f_equal. apply semz_ext. intros l Hl. unfold choice_of.
  rewrite (Ha l Hl). reflexivity.
Qed.

Lemma all_lo_seq : forall a k L, all_lo (choice_of a) L k = forallb (fun l => negb (a l)) (seq L k).
Proof.
  intros a. induction k as [|k IH]; intros L; [reflexivity|].
  rewrite all_lo_S. simpl. rewrite IH. f_equal. unfold choice_of. destruct (a L); reflexivity.
Qed.

Lemma Fz_term : forall s L t v a, term_val s t = Some v ->
  Fz s L (RT t) a = N.eqb v 1 && all_lo (choice_of a) L (nlevels s - L).
Proof. intros s L t v a E. unfold Fz. rewrite semz_T, E. reflexivity. Qed.

Lemma Fz_skip : forall s r a d L, ref_ok s r -> L + d = rlevel s r ->
  Fz s L r a = all_lo (choice_of a) L d && Fz s (rlevel s r) r a.
Proof.
  intros s r a. induction d as [|d IH]; intros L Hok Hd.
  - simpl. replace L with (rlevel s r) by lia. reflexivity.
  - rewrite (Fz_lo s L r a Hok ltac:(lia)), (IH (S L) Hok ltac:(lia)), all_lo_S.
    assert (Hc : Nat.eqb (choice_of a L) 1 = negb (a L)) by (unfold choice_of; destruct (a L); reflexivity).
    rewrite Hc, andb_assoc. reflexivity.
Qed.

Section Z.
Variable s : snap.
Hypothesis B : ZbddOK s.

Let H : WF s := zo_wf s B.
Let Hk : s_kind s = KZbdd := zo_kind s B.
Let n := nlevels s.

Lemma z_not_bcdd : s_kind s <> KBcdd.
Proof. rewrite Hk. discriminate. Qed.

Lemma z_view_err : forall e, good_z s e -> view_plain s e <> CErr.
Proof.
  intros e [Hok _]. unfold view_plain. destruct (eref e) as [t|id].
  - destruct Hok as [v Ev]. rewrite Ev. destruct (zo_codes s B t v Ev) as [->| ->]; discriminate.
  - destruct Hok as [nd E]. rewrite E.
    destruct (two_children s id nd H (zbdd_binary s Hk) E) as [e0 [e1 Hc]]. rewrite Hc. discriminate.
Qed.

Lemma z_view_term : forall e b L a, view_plain s e = CTerm b ->
  rlevel s (eref e) = n /\ Fz s L (eref e) a = b && all_lo (choice_of a) L (n - L).
Proof.
  intros e b L a Ev. destruct (view_plain_term s e b Ev) as [t [Er Et]]. rewrite Er.
  split; [reflexivity|]. rewrite (Fz_term s L t _ a Et). destruct b; reflexivity.
Qed.

(** an inner node: structure, and the Shannon expansion from its own level *)
Lemma z_view_node : forall e l hi lo, good_z s e -> view_plain s e = CNode l hi lo ->
  l = rlevel s (eref e) /\ l < n /\ good_z s hi /\ good_z s lo /\
  l < rlevel s (eref hi) /\ l < rlevel s (eref lo) /\ isfz s hi = false /\
  forall a, Fz s l (eref e) a = Fz s (S l) (eref (if a l then hi else lo)) a.
Proof.
  intros e l hi lo G Ev.
  destruct (view_plain_node s e l hi lo Ev) as [id [nd [Er [E [Hc Hl]]]]].
  rewrite (wf_stored s H id nd E) in Hl. subst l.
  destruct (node_children_ok s id nd hi lo H E Hc) as [Ct Cx].
  assert (Tt : etag hi = false) by (apply (wf_tags s H z_not_bcdd id nd hi E); rewrite Hc; left; reflexivity).
  assert (Tx : etag lo = false) by (apply (wf_tags s H z_not_bcdd id nd lo E); rewrite Hc; right; left; reflexivity).
  rewrite Er.
  split; [rewrite (rlevel_node s id nd E); reflexivity|].
  split; [apply (wf_level s H id nd E)|].
  split; [split; [apply Ct | exact Tt]|]. split; [split; [apply Cx | exact Tx]|].
  split; [apply Ct|]. split; [apply Cx|]. split.
  - destruct (reduced_zbdd s Hk _ (wf_reduced s H id nd E)) as [h [Hh Hne]].
    rewrite Hc in Hh. simpl in Hh. inversion Hh; subst h.
    unfold is_false. destruct (view_plain s hi) as [|[|]|] eqn:Vh; try reflexivity.
    destruct (view_plain_term s hi false Vh) as [t [Et Ev0]]. exfalso. apply (Hne t Et). exact Ev0.
  - intros a.
    rewrite (Fz_ext s (nlevel nd) (RN id) a (updb a (nlevel nd) (a (nlevel nd)))).
    + apply (Fz_child s H id nd hi lo a (a (nlevel nd)) E Hc).
    + intros l _. unfold updb. destruct (Nat.eqb_spec l (nlevel nd)); congruence.
Qed.

(** ** Paths and their cubes *)

(** the literals of [tr] hold, every other level from [L] on is false *)
Definition zsatb (a : lasg) (L : nat) (tr : list step) : bool :=
  forallb (fun l => match trace_val tr l with
                    | Some (Some c) => Bool.eqb (a l) c
                    | Some None => true
                    | None => negb (a l)
                    end) (seq L (n - L)).

Lemma zsatb_nil : forall a L, zsatb a L [] = all_lo (choice_of a) L (n - L).
Proof. intros a L. unfold zsatb. rewrite all_lo_seq. reflexivity. Qed.

Lemma zsatb_cons : forall a L l e v k tr, L <= l -> l < n -> (forall p, In p tr -> l < sp_level p) ->
  zsatb a L (mkStep l e v k :: tr) =
  all_lo (choice_of a) L (l - L) && match v with Some c => Bool.eqb (a l) c | None => true end
  && zsatb a (S l) tr.
Proof.
  intros a L l e v k tr HL Hl Hgt. unfold zsatb.
  replace (n - L) with ((l - L) + S (n - S l)) by lia.
  rewrite seq_app, forallb_app. replace (L + (l - L)) with l by lia.
  cbn [seq forallb]. rewrite all_lo_seq, andb_assoc. f_equal; [f_equal|].
  - apply forallb_ext_in. intros l0 Hin. apply in_seq in Hin. cbn [trace_val sp_level sp_val].
    destruct (Nat.eqb_spec l l0); [lia|].
    rewrite trace_val_none; [reflexivity|].
    intros Hi. apply in_map_iff in Hi. destruct Hi as [p [Hp1 Hp2]]. specialize (Hgt p Hp2). lia.
  - cbn [trace_val sp_level sp_val]. rewrite Nat.eqb_refl. destruct v as [c|]; reflexivity.
  - apply forallb_ext_in. intros l0 Hin. apply in_seq in Hin. cbn [trace_val sp_level sp_val].
    destruct (Nat.eqb_spec l l0); [lia | reflexivity].
Qed.

Inductive PathZ : edge -> list step -> Prop :=
| PZ_end : forall e, view_plain s e = CTerm true -> PathZ e []
| PZ_step : forall e l hi lo v asked tr,
    view_plain s e = CNode l hi lo ->
    (v = None -> hi = lo) ->
    PathZ (match v with Some false => lo | _ => hi end) tr ->
    PathZ e (mkStep l e v asked :: tr).

Lemma pathz_levels : forall e tr, PathZ e tr -> good_z s e ->
  incr_from (rlevel s (eref e)) (map sp_level tr) /\ forall p, In p tr -> rlevel s (eref e) <= sp_level p < n.
Proof.
  intros e tr P. induction P as [e Ev | e l hi lo v asked tr Ev Hv P IH]; intros G.
  - split; [exact I | intros p []].
  - destruct (z_view_node e l hi lo G Ev) as [El [Ll [Gh [Gl [Lh [Llo _]]]]]].
    set (nx := match v with Some false => lo | _ => hi end) in *.
    assert (Gn : good_z s nx) by (unfold nx; destruct v as [[|]|]; assumption).
    assert (Ln : l < rlevel s (eref nx)) by (unfold nx; destruct v as [[|]|]; assumption).
    destruct (IH Gn) as [A C]. split.
    + simpl. split; [lia|]. eapply incr_from_weaken; [exact A | lia].
    + intros p [<-|Hp]; [simpl; lia|]. specialize (C p Hp). lia.
Qed.

(** every assignment with the path's literals that is false on the other
    levels from [L] on satisfies the function from level [L] *)
Lemma pathz_sem : forall e tr, PathZ e tr -> good_z s e ->
  forall L a, L <= rlevel s (eref e) -> zsatb a L tr = true -> Fz s L (eref e) a = true.
Proof.
  intros e tr P. induction P as [e Ev | e l hi lo v asked tr Ev Hv P IH]; intros G L a HL Hs.
  - destruct (z_view_term e true L a Ev) as [_ ->]. rewrite zsatb_nil in Hs. exact Hs.
  - destruct (z_view_node e l hi lo G Ev) as [El [Ll [Gh [Gl [Lh [Llo [_ Hd]]]]]]].
    set (nx := match v with Some false => lo | _ => hi end) in *.
    assert (Gn : good_z s nx) by (unfold nx; destruct v as [[|]|]; assumption).
    assert (Ln : l < rlevel s (eref nx)) by (unfold nx; destruct v as [[|]|]; assumption).
    destruct (pathz_levels nx tr P Gn) as [_ C].
    rewrite zsatb_cons in Hs; [|lia | exact Ll | intros p Hp; specialize (C p Hp); lia].
    apply andb_true_iff in Hs. destruct Hs as [Hs Hs3]. apply andb_true_iff in Hs. destruct Hs as [Hs1 Hs2].
    rewrite (Fz_skip s (eref e) a (l - L) L (proj1 G) ltac:(lia)), Hs1, <- El, Hd. simpl.
    replace (if a l then hi else lo) with nx.
    + apply IH; [exact Gn | lia | exact Hs3].
    + unfold nx. destruct v as [[|]|].
      * apply eqb_prop in Hs2. rewrite Hs2. reflexivity.
      * apply eqb_prop in Hs2. rewrite Hs2. reflexivity.
      * rewrite (Hv eq_refl). destruct (a l); reflexivity.
Qed.

(** the assignment that follows a trace *)
Definition follow (tr : list step) : lasg :=
  fun l => match trace_val tr l with Some (Some c) => c | _ => false end.

Lemma zsatb_follow : forall L tr, zsatb (follow tr) L tr = true.
Proof.
  intros L tr. unfold zsatb. apply forallb_forall. intros l _. unfold follow.
  destruct (trace_val tr l) as [[c|]|]; try reflexivity. apply eqb_reflx.
Qed.

Lemma pathz_sat : forall e tr, PathZ e tr -> good_z s e -> exists a, den_z s e a = true.
Proof.
  intros e tr P G. exists (follow tr). unfold den_z.
  change (fun_zbdd s (eref e) (follow tr)) with (Fz s 0 (eref e) (follow tr)).
  apply (pathz_sem e tr P G 0 (follow tr) ltac:(lia)). apply zsatb_follow.
Qed.

Lemma isfz_true : forall e, isfz s e = true -> forall a, den_z s e a = false.
Proof.
  intros e. unfold is_false. destruct (view_plain s e) as [|[|]|] eqn:Ev; try discriminate.
  intros _ a. unfold den_z. change (fun_zbdd s (eref e) a) with (Fz s 0 (eref e) a).
  destruct (z_view_term e false 0 a Ev) as [_ ->]. reflexivity.
Qed.

(** ** The walk *)

Section Choice.
Variable St : Type.
Variable choice : St -> nat -> edge -> bool * St.

Inductive RunZ : St -> edge -> list step -> St -> Prop :=
| RZ_end : forall st e, view_plain s e = CTerm true -> RunZ st e [] st
| RZ_dc : forall st e l hi lo tr st',
    view_plain s e = CNode l hi lo -> hi = lo ->
    RunZ st hi tr st' -> RunZ st e (mkStep l e None false :: tr) st'
| RZ_forced : forall st e l hi lo tr st',
    view_plain s e = CNode l hi lo -> hi <> lo -> isfz s lo = true ->
    RunZ st hi tr st' -> RunZ st e (mkStep l e (Some true) false :: tr) st'
| RZ_asked : forall st e l hi lo (c : bool) st1 tr st',
    view_plain s e = CNode l hi lo -> hi <> lo -> isfz s lo = false ->
    choice st l e = (c, st1) ->
    RunZ st1 (if c then hi else lo) tr st' -> RunZ st e (mkStep l e (Some c) true :: tr) st'.

Lemma runz_path : forall st e tr st', RunZ st e tr st' -> PathZ e tr.
Proof.
  intros st e tr st' R. induction R.
  - apply PZ_end. assumption.
  - apply (PZ_step e l hi lo None false tr); [assumption | intros _; assumption | assumption].
  - apply (PZ_step e l hi lo (Some true) false tr); [assumption | discriminate | assumption].
  - apply (PZ_step e l hi lo (Some c) true tr); [assumption | discriminate | destruct c; assumption].
Qed.

Lemma edge_eqb_false : forall a b : edge, edge_eqb a b = false -> a <> b.
Proof. intros a b E Heq. apply edge_eqb_eq in Heq. congruence. Qed.

Lemma walk_z_run : forall fuel st e, good_z s e -> isfz s e = false ->
  n - rlevel s (eref e) < fuel ->
  exists tr st', walk_z St choice fuel s st e = Some (tr, st') /\ RunZ st e tr st'.
Proof.
  induction fuel as [|f IH]; intros st e G Hnf Hf; [lia|].
  simpl. unfold is_false in Hnf.
  destruct (view_plain s e) as [|b|l hi lo] eqn:Ev.
  - exfalso. apply (z_view_err e G Ev).
  - destruct b; [|discriminate]. exists [], st. split; [reflexivity | apply RZ_end; exact Ev].
  - destruct (z_view_node e l hi lo G Ev) as [El [Ll [Gh [Gl [Lh [Llo [Fh _]]]]]]].
    pose proof (rlevel_le s H (eref hi)) as Bh. pose proof (rlevel_le s H (eref lo)) as Bl. fold n in Bh, Bl.
    destruct (edge_eqb hi lo) eqn:Eq.
    + apply edge_eqb_eq in Eq.
      destruct (IH st hi Gh Fh ltac:(lia)) as [tr [st' [W R]]]. rewrite W.
      exists (mkStep l e None false :: tr), st'. split; [reflexivity|].
      eapply RZ_dc; eauto.
    + apply edge_eqb_false in Eq. destruct (isfz s lo) eqn:Fl.
      * destruct (IH st hi Gh Fh ltac:(lia)) as [tr [st' [W R]]]. rewrite W.
        exists (mkStep l e (Some true) false :: tr), st'. split; [reflexivity|].
        eapply RZ_forced; eauto.
      * destruct (choice st l e) as [c st1] eqn:Ec.
        assert (Gc : good_z s (if c then hi else lo)) by (destruct c; assumption).
        assert (Fc : isfz s (if c then hi else lo) = false) by (destruct c; assumption).
        destruct (IH st1 (if c then hi else lo) Gc Fc ltac:(destruct c; lia)) as [tr [st' [W R]]].
        rewrite W. exists (mkStep l e (Some c) true :: tr), st'. split; [reflexivity|].
        eapply RZ_asked; eauto.
Qed.

(** the choice function is called at most once per level (levels increase),
    with an edge to an inner node of that level whose children differ and are
    both satisfiable; where it is not called the node is a don't care
    ([hi = lo]) or the else child is Empty *)
Definition call_ok_z (p : step) : Prop :=
  exists hi lo, view_plain s (sp_edge p) = CNode (sp_level p) hi lo /\ good_z s (sp_edge p) /\
    if sp_asked p then
      hi <> lo /\ (exists c, sp_val p = Some c) /\
      (exists a, den_z s hi a = true) /\ (exists a, den_z s lo a = true)
    else (hi = lo /\ sp_val p = None) \/
         (hi <> lo /\ sp_val p = Some true /\ forall a, den_z s lo a = false).


End Choice.

Lemma nonfalse_sat : forall e, good_z s e -> isfz s e = false -> exists a, den_z s e a = true.
Proof.
  intros e G F. pose proof (rlevel_le s H (eref e)) as Hle. fold n in Hle.
  destruct (walk_z_run unit (fun st _ _ => (true, st)) (S n) tt e G F ltac:(lia)) as [tr [st' [_ R]]].
  apply (pathz_sat e tr (runz_path _ _ _ _ _ _ R) G).
Qed.

Lemma isfz_iff : forall e, good_z s e -> (isfz s e = true <-> forall a, den_z s e a = false).
Proof.
  intros e G. split; [apply isfz_true|].
  intros Hf. destruct (isfz s e) eqn:E; [reflexivity|].
  destruct (nonfalse_sat e G E) as [a Ha]. rewrite Hf in Ha. discriminate.
Qed.

End Z.

(** ** [pick_cube] *)

Section PickCubeZ.
Variable St : Type.
Variable choice : St -> nat -> edge -> bool * St.

Lemma runz_calls : forall s, ZbddOK s -> forall st e tr st', RunZ s St choice st e tr st' -> good_z s e ->
  forall p, In p tr -> call_ok_z s p.
Proof.
  intros s B st e tr st' R.
  induction R as [st e Ev | st e l hi lo tr st' Ev Heq R IH | st e l hi lo tr st' Ev Hne Fl R IH
                 | st e l hi lo c st1 tr st' Ev Hne Fl Ec R IH]; intros G p Hp.
  - destruct Hp.
  - destruct (z_view_node s B e l hi lo G Ev) as [El [Ll [Gh [Gl [Lh [Llo [Fh _]]]]]]].
    destruct Hp as [<-|Hp]; [|apply IH; assumption].
    exists hi, lo. simpl. split; [exact Ev|]. split; [exact G|]. left. auto.
  - destruct (z_view_node s B e l hi lo G Ev) as [El [Ll [Gh [Gl [Lh [Llo [Fh _]]]]]]].
    destruct Hp as [<-|Hp]; [|apply IH; assumption].
    exists hi, lo. simpl. split; [exact Ev|]. split; [exact G|]. right.
    split; [exact Hne|]. split; [reflexivity|]. apply (isfz_true s lo Fl).
  - destruct (z_view_node s B e l hi lo G Ev) as [El [Ll [Gh [Gl [Lh [Llo [Fh _]]]]]]].
    destruct Hp as [<-|Hp]; [|apply IH; [destruct c; assumption | exact Hp]].
    exists hi, lo. simpl. split; [exact Ev|]. split; [exact G|].
    split; [exact Hne|]. split; [eauto|]. split; apply (nonfalse_sat s B); assumption.
Qed.

Lemma runz_answers : forall s st e tr st', RunZ s St choice st e tr st' ->
  replay St choice st tr = (asked_vals tr, st').
Proof.
  intros s st e tr st' R.
  induction R as [st e Ev | st e l hi lo tr st' Ev Heq R IH | st e l hi lo tr st' Ev Hne Fl R IH
                 | st e l hi lo c st1 tr st' Ev Hne Fl Ec R IH].
  - reflexivity.
  - simpl. exact IH.
  - simpl. exact IH.
  - simpl. rewrite Ec, IH. reflexivity.
Qed.

Lemma pick_cube_z_node : forall s st e l t x, ZbddOK s -> good_z s e -> view_plain s e = CNode l t x ->
  exists cb tr st', pick_cube_z St choice s st e = Some (Some (cb, tr, st')) /\
    RunZ s St choice st e tr st' /\ length cb = nlevels s /\
    forall l, l < nlevels s ->
      cube_lit s cb l = match trace_val tr l with Some v => v | None => Some false end.
Proof.
  intros s st e l t x B G Ev. unfold pick_cube_z. rewrite Ev.
  assert (Hnf : isfz s e = false) by (unfold is_false; rewrite Ev; reflexivity).
  pose proof (rlevel_le s (zo_wf s B) (eref e)).
  destruct (walk_z_run s B St choice (S (nlevels s)) st e G Hnf ltac:(lia)) as [tr [st' [W R]]]. rewrite W.
  destruct (pathz_levels s B e tr (runz_path s St choice _ _ _ _ R) G) as [A C].
  destruct (write_all_spec s (zo_wf s B) tr (repeat (Some false) (nlevels s)) (repeat_length _ _)
              (fun p Hp => proj2 (C p Hp)) (incr_from_nodup _ _ A)) as [cb [Ew [Lc Wc]]].
  rewrite Ew. exists cb, tr, st'. split; [reflexivity|]. split; [exact R|]. split; [exact Lc|].
  intros l0 Hl. rewrite (Wc l0 Hl).
  destruct (trace_val tr l0); [reflexivity|]. apply cube_lit_repeat; [apply (zo_wf s B) | exact Hl].
Qed.

Theorem pick_cube_z_total : forall s st e, ZbddOK s -> good_z s e ->
  exists r, pick_cube_z St choice s st e = Some r.
Proof.
  intros s st e B G. destruct (view_plain s e) as [|[|]|l t x] eqn:Ev.
  - exfalso. apply (z_view_err s B e G Ev).
  - unfold pick_cube_z. rewrite Ev. eauto.
  - unfold pick_cube_z. rewrite Ev. eauto.
  - destruct (pick_cube_z_node s st e l t x B G Ev) as [cb [tr [st' [E _]]]]. eauto.
Qed.

Theorem pick_cube_z_none_iff : forall s st e, ZbddOK s -> good_z s e ->
  (pick_cube_z St choice s st e = Some None <-> forall a, den_z s e a = false).
Proof.
  intros s st e B G. rewrite <- (isfz_iff s B e G). unfold pick_cube_z, is_false.
  destruct (view_plain s e) as [|[|]|l t x] eqn:Ev.
  - split; discriminate.
  - split; discriminate.
  - split; reflexivity.
  - split; [|discriminate].
    destruct (walk_z St choice (S (nlevels s)) s st e) as [[tr st']|]; [|discriminate].
    destruct (write_all s tr (repeat (Some false) (nlevels s))); discriminate.
Qed.

Theorem pick_cube_z_some : forall s st e cb tr st', ZbddOK s -> good_z s e ->
  pick_cube_z St choice s st e = Some (Some (cb, tr, st')) ->
  RunZ s St choice st e tr st' /\ length cb = nlevels s /\
  forall l, l < nlevels s ->
    cube_lit s cb l = match trace_val tr l with Some v => v | None => Some false end.
Proof.
  intros s st e cb tr st' B G E. destruct (view_plain s e) as [|[|]|l t x] eqn:Ev.
  4: { destruct (pick_cube_z_node s st e l t x B G Ev) as [cb0 [tr0 [st0 [E0 P]]]].
       rewrite E0 in E. inversion E; subst. exact P. }
  all: unfold pick_cube_z in E; rewrite Ev in E; try discriminate.
  inversion E; subst. split; [apply RZ_end; exact Ev|].
  split; [apply repeat_length|]. intros l Hl. simpl. apply cube_lit_repeat; [apply (zo_wf s B) | exact Hl].
Qed.

Lemma agrees_zsatb : forall s a cb tr,
  (forall l, l < nlevels s ->
     cube_lit s cb l = match trace_val tr l with Some v => v | None => Some false end) ->
  (agrees s a cb <-> zsatb s a 0 tr = true).
Proof.
  intros s a cb tr Hc. unfold agrees, zsatb. rewrite forallb_forall. split.
  - intros Ha l Hin. apply in_seq in Hin. assert (Hl : l < nlevels s) by lia.
    specialize (Hc l Hl). specialize (Ha l).
    destruct (trace_val tr l) as [[c|]|].
    + apply eqb_true_iff. apply Ha; assumption.
    + reflexivity.
    + rewrite (Ha false Hl Hc). reflexivity.
  - intros Hs l b Hl E. specialize (Hs l ltac:(apply in_seq; lia)). rewrite (Hc l Hl) in E.
    destruct (trace_val tr l) as [[c|]|].
    + apply eqb_prop in Hs. congruence.
    + discriminate.
    + inversion E; subst. destruct (a l); [discriminate | reflexivity].
Qed.

Theorem pick_cube_z_implicant : forall s st e cb tr st', ZbddOK s -> good_z s e ->
  pick_cube_z St choice s st e = Some (Some (cb, tr, st')) ->
  forall a, agrees s a cb -> den_z s e a = true.
Proof.
  intros s st e cb tr st' B G E a Ha.
  destruct (pick_cube_z_some s st e cb tr st' B G E) as [R [Lc Wc]].
  unfold den_z. change (fun_zbdd s (eref e) a) with (Fz s 0 (eref e) a).
  apply (pathz_sem s B e tr (runz_path s St choice _ _ _ _ R) G 0 a ltac:(lia)).
  apply (agrees_zsatb s a cb tr Wc). exact Ha.
Qed.

End PickCubeZ.

(** ** Building the cube diagram *)

Lemma zsatb_skip : forall s a L l tr, L <= l -> l < nlevels s -> (forall p, In p tr -> l < sp_level p) ->
  zsatb s a L tr = all_lo (choice_of a) L (l - L) && negb (a l) && zsatb s a (S l) tr.
Proof.
  intros s a L l tr HL Hl Hgt. unfold zsatb.
  replace (nlevels s - L) with ((l - L) + S (nlevels s - S l)) by lia.
  rewrite seq_app, forallb_app. replace (L + (l - L)) with l by lia.
  cbn [seq forallb]. rewrite all_lo_seq, andb_assoc.
  assert (Hn : forall l0, l0 <= l -> trace_val tr l0 = None).
  { intros l0 Hl0. apply trace_val_none. intros Hi. apply in_map_iff in Hi.
    destruct Hi as [p [Hp1 Hp2]]. specialize (Hgt p Hp2). lia. }
  f_equal. f_equal.
  - apply forallb_ext_in. intros l0 Hin. apply in_seq in Hin. rewrite Hn by lia. reflexivity.
  - rewrite Hn by lia. reflexivity.
Qed.

Lemma term_of_z : forall s, ZbddOK s -> exists t, term_of s false = Some t /\ term_val s t = Some 0%N.
Proof.
  intros s B. destruct (zo_empty s B) as [t0 E0].
  destruct (rassoc_N_total (s_terms s) 0%N t0 (assoc_N_In _ _ _ E0)) as [t Et].
  exists t. split; [exact Et|]. apply (term_of_spec s false t (zo_wf s B) Et).
Qed.

Lemma view_plain_E : forall s id nd hi lo, find_node s id = Some nd -> nchildren nd = [hi; lo] ->
  view_plain s (E (RN id)) = CNode (nstored nd) hi lo.
Proof. intros s id nd hi lo E Hc. unfold view_plain. simpl. rewrite E, Hc. reflexivity. Qed.

Lemma fun_z_extends : forall s s' r L a, WF s -> extends s s' -> ref_ok s r -> Fz s' L r a = Fz s L r a.
Proof.
  intros s s' r L a H X Hok. unfold Fz.
  rewrite (ext_nlevels _ _ X), (semz_extends s s' H X _ _ _ _ Hok). reflexivity.
Qed.

Lemma isfz_term0 : forall s e, isfz s e = false -> forall t, eref e = RT t -> term_val s t <> Some 0%N.
Proof.
  intros s e F t Er Ev. unfold is_false, view_plain in F. rewrite Er, Ev in F. discriminate.
Qed.

(** [add_lit_z]: the node [level, [sub, sub]] (don't care) or [level, [sub, Empty]] *)
Lemma add_lit_z_ok : forall s sub l dnc, ZbddOK s -> good_z s sub -> isfz s sub = false ->
  l < nlevels s -> l < rlevel s (eref sub) ->
  exists s' r, add_lit_z s sub l dnc = Some (s', r) /\ ZbddOK s' /\ extends s s' /\ good_z s' r /\
    rlevel s' (eref r) = l /\ isfz s' r = false /\
    forall a, Fz s' l (eref r) a = (if dnc then true else a l) && Fz s (S l) (eref sub) a.
Proof.
  intros s sub l dnc B [Gs Ts] Fs Hl Hls. pose proof (zo_wf s B) as H. pose proof (zo_kind s B) as Hk.
  destruct (term_of_z s B) as [t0 [Et0 Vt0]].
  set (lo' := if dnc then sub else E (RT t0)).
  assert (Ea : add_lit_z s sub l dnc = Some (get_or_insert s l [sub; lo'])).
  { unfold add_lit_z, lo'. destruct dnc; [reflexivity | rewrite Et0; reflexivity]. }
  rewrite Ea. destruct (get_or_insert s l [sub; lo']) as [s' r] eqn:Eg.
  assert (Glo : ref_ok s (eref lo') /\ l < rlevel s (eref lo') /\ etag lo' = false).
  { unfold lo'. destruct dnc; [auto|]. simpl. split; [exists 0%N; exact Vt0 | split; [exact Hl | reflexivity]]. }
  assert (Hlen : length [sub; lo'] = arity (s_kind s)) by (rewrite Hk; reflexivity).
  assert (Hce : forall e, In e [sub; lo'] -> ref_ok s (eref e) /\ l < rlevel s (eref e)).
  { intros e [<-|[<-|[]]]; [auto | split; apply Glo]. }
  assert (Hred : reduced s [sub; lo']).
  { unfold reduced. rewrite Hk. exists sub. split; [reflexivity|]. apply (isfz_term0 s sub Fs). }
  assert (Htags : s_kind s <> KBcdd -> forall e, In e [sub; lo'] -> etag e = false).
  { intros _ e [<-|[<-|[]]]; [exact Ts | apply Glo]. }
  destruct (goi_any s l [sub; lo'] H Hl Hlen Hce Hred Htags s' r Eg) as [W' [X [id [nd [Er [E' [El Ec]]]]]]].
  pose proof (zbddok_extends s s' B X W') as B'.
  exists s', r. split; [reflexivity|]. split; [exact B'|]. split; [exact X|]. subst r.
  assert (Gr : good_z s' (E (RN id))) by (split; [exists nd; exact E' | reflexivity]).
  pose proof (view_plain_E s' id nd sub lo' E' Ec) as Ev. rewrite (wf_stored s' W' id nd E'), El in Ev.
  split; [exact Gr|]. split; [simpl; rewrite E'; exact El|].
  split; [unfold is_false; rewrite Ev; reflexivity|].
  intros a. destruct (z_view_node s' B' (E (RN id)) l sub lo' Gr Ev) as [_ [_ [_ [_ [_ [_ [_ Hd]]]]]]].
  rewrite Hd. unfold lo'. destruct dnc.
  - destruct (a l); simpl; apply (fun_z_extends s s' (eref sub) (S l) a H X Gs).
  - destruct (a l); simpl.
    + apply (fun_z_extends s s' (eref sub) (S l) a H X Gs).
    + rewrite (Fz_term s' (S l) t0 0%N a); [reflexivity|]. rewrite (ext_term_val _ _ t0 X). exact Vt0.
Qed.

(** what is known about a partial result: it is a non-empty edge of the
    extended table whose function from every level [L <= lev] is the cube of [tr] *)
Definition dd_ok (s : snap) (lev : nat) (s' : snap) (r : edge) (tr : list step) : Prop :=
  ZbddOK s' /\ extends s s' /\ good_z s' r /\ isfz s' r = false /\ lev <= rlevel s' (eref r) /\
  (forall p, In p tr -> lev <= sp_level p < nlevels s) /\
  forall L a, L <= lev -> Fz s' L (eref r) a = zsatb s a L tr.

Lemma dd_ok_term : forall s e, ZbddOK s -> good_z s e -> view_plain s e = CTerm true ->
  dd_ok s (rlevel s (eref e)) s e [].
Proof.
  intros s e B G Ev. split; [exact B|]. split; [apply extends_refl|]. split; [exact G|].
  split; [unfold is_false; rewrite Ev; reflexivity|]. split; [lia|]. split; [intros p []|].
  intros L a _. destruct (z_view_term s e true L a Ev) as [_ ->]. rewrite zsatb_nil. reflexivity.
Qed.

Lemma build_step : forall s e l hi lo (c dnc asked : bool) s1 sub tr, ZbddOK s -> good_z s e ->
  view_plain s e = CNode l hi lo -> (dnc = true -> hi = lo /\ c = true) ->
  dd_ok s (rlevel s (eref (if c then hi else lo))) s1 sub tr ->
  exists s2 r, (if c then add_lit_z s1 sub l dnc else Some (s1, sub)) = Some (s2, r) /\
    dd_ok s l s2 r (mkStep l e (if dnc then None else Some c) asked :: tr).
Proof.
  intros s e l hi lo c dnc asked s1 sub tr B G Ev Hdnc [B1 [X1 [G1 [F1 [L1 [T1 D1]]]]]].
  destruct (z_view_node s B e l hi lo G Ev) as [El [Ll [Gh [Gl [Lh [Llo _]]]]]].
  assert (Ln : l < rlevel s (eref (if c then hi else lo))) by (destruct c; assumption).
  set (lev' := rlevel s (eref (if c then hi else lo))) in *.
  assert (Tgt : forall p, In p tr -> l < sp_level p) by (intros p Hp; specialize (T1 p Hp); lia).
  destruct c.
  - destruct (add_lit_z_ok s1 sub l dnc B1 G1 F1 ltac:(rewrite (ext_nlevels _ _ X1); exact Ll) ltac:(lia))
      as [s2 [r [Ea [B2 [X2 [G2 [L2 [F2 D2]]]]]]]].
    exists s2, r. split; [exact Ea|].
    split; [exact B2|]. split; [eapply extends_trans; eauto|]. split; [exact G2|]. split; [exact F2|].
    split; [lia|]. split.
    + intros p [<-|Hp]; [simpl; lia | specialize (T1 p Hp); lia].
    + intros L a HL.
      rewrite (Fz_skip s2 (eref r) a (l - L) L (proj1 G2) ltac:(lia)), L2, D2.
      rewrite (D1 (S l) a ltac:(lia)).
      rewrite zsatb_cons by (assumption || lia). rewrite <- andb_assoc. f_equal. f_equal.
      destruct dnc; [reflexivity|]. destruct (a l); reflexivity.
  - assert (dnc = false) by (destruct dnc; [destruct (Hdnc eq_refl); discriminate | reflexivity]). subst dnc.
    exists s1, sub. split; [reflexivity|].
    split; [exact B1|]. split; [exact X1|]. split; [exact G1|]. split; [exact F1|].
    split; [lia|]. split.
    + intros p [<-|Hp]; [simpl; lia | specialize (T1 p Hp); lia].
    + intros L a HL. rewrite (D1 L a ltac:(lia)).
      rewrite zsatb_cons by (assumption || lia).
      rewrite (zsatb_skip s a L l tr) by (assumption || lia).
      destruct (a l); reflexivity.
Qed.

Section PickDdZ.
Variable St : Type.
Variable choice : St -> nat -> edge -> bool * St.

Lemma pick_dd_z_spec : forall fuel s st e, ZbddOK s -> good_z s e -> isfz s e = false ->
  nlevels s - rlevel s (eref e) < fuel ->
  exists s' r tr st',
    pick_dd_z St choice fuel s st e = Some (s', r, tr, st') /\
    walk_z St choice fuel s st e = Some (tr, st') /\
    dd_ok s (rlevel s (eref e)) s' r tr.
Proof.
  induction fuel as [|f IH]; intros s st e B G Hnf Hf; [lia|].
  simpl. unfold is_false in Hnf.
  destruct (view_plain s e) as [|b|l hi lo] eqn:Ev.
  - exfalso. apply (z_view_err s B e G Ev).
  - destruct b; [|discriminate]. exists s, e, [], st.
    split; [reflexivity|]. split; [reflexivity|]. apply dd_ok_term; assumption.
  - destruct (z_view_node s B e l hi lo G Ev) as [El [Ll [Gh [Gl [Lh [Llo [Fh _]]]]]]].
    pose proof (rlevel_le s (zo_wf s B) (eref hi)) as Bh. pose proof (rlevel_le s (zo_wf s B) (eref lo)) as Bl.
    (* the decision of both functions, uniformly *)
    assert (Hdec : exists (c dnc asked : bool) st1,
      (if edge_eqb hi lo || isfz s lo then (true, false, st)
       else let (c, st') := choice st l e in (c, true, st')) = (c, asked, st1) /\
      (if edge_eqb hi lo then (@None bool, hi, false, st)
       else if isfz s lo then (Some true, hi, false, st)
       else let (c, st') := choice st l e in (Some c, if c then hi else lo, true, st'))
      = (if dnc then None else Some c, if c then hi else lo, asked, st1) /\
      dnc = edge_eqb hi lo /\ (dnc = true -> hi = lo /\ c = true) /\
      isfz s (if c then hi else lo) = false).
    { destruct (edge_eqb hi lo) eqn:Eq.
      - exists true, true, false, st. simpl. repeat split; auto. apply edge_eqb_eq. exact Eq.
      - destruct (isfz s lo) eqn:Fl.
        + exists true, false, false, st. simpl. repeat split; auto; discriminate.
        + destruct (choice st l e) as [c st1]. exists c, false, true, st1. simpl.
          repeat split; auto; try discriminate. destruct c; assumption. }
    destruct Hdec as [c [dnc [asked [st1 [Ed1 [Ed2 [Edn [Hdnc Fc]]]]]]]].
    rewrite Ed1, Ed2, <- Edn.
    assert (Gc : good_z s (if c then hi else lo)) by (destruct c; assumption).
    destruct (IH s st1 (if c then hi else lo) B Gc Fc ltac:(destruct c; lia))
      as [s1 [sub [tr [st2 [P [W D]]]]]].
    rewrite P, W.
    destruct (build_step s e l hi lo c dnc asked s1 sub tr B G Ev Hdnc D) as [s2 [r [Eb D2]]].
    exists s2, r, (mkStep l e (if dnc then None else Some c) asked :: tr), st2.
    split; [|split; [reflexivity | rewrite <- El; exact D2]].
    destruct c; [rewrite Eb; reflexivity | inversion Eb; reflexivity].
Qed.

Lemma den_z_extends : forall s s' e a, ZbddOK s -> extends s s' -> good_z s e -> den_z s' e a = den_z s e a.
Proof.
  intros s s' e a B X [G _]. unfold den_z.
  change (fun_zbdd s' (eref e) a) with (Fz s' 0 (eref e) a).
  change (fun_zbdd s (eref e) a) with (Fz s 0 (eref e) a).
  apply (fun_z_extends s s' (eref e) 0 a (zo_wf s B) X G).
Qed.

(** [pick_cube] and [pick_cube_dd] describe the same cube *)
Theorem pick_dd_z_same_cube : forall s st e cb tr st', ZbddOK s -> good_z s e ->
  pick_cube_z St choice s st e = Some (Some (cb, tr, st')) ->
  exists s' r,
    pick_cube_dd_z St choice s st e = Some (s', r, tr, st') /\
    ZbddOK s' /\ extends s s' /\ good_z s' r /\
    forall a, den_z s' r a = true <-> agrees s a cb.
Proof.
  intros s st e cb tr st' B G E.
  destruct (pick_cube_z_some St choice s st e cb tr st' B G E) as [R [Lc Wc]].
  assert (Hnf : isfz s e = false).
  { destruct (isfz s e) eqn:F; [|reflexivity]. exfalso.
    pose proof (proj2 (pick_cube_z_none_iff St choice s st e B G) (isfz_true s e F)). congruence. }
  pose proof (rlevel_le s (zo_wf s B) (eref e)).
  destruct (pick_dd_z_spec (S (nlevels s)) s st e B G Hnf ltac:(lia))
    as [s' [r [tr0 [st0 [P [W [B' [X [G' [F' [L' [T' D']]]]]]]]]]]].
  assert (tr0 = tr /\ st0 = st').
  { unfold pick_cube_z in E. unfold is_false in Hnf.
    destruct (view_plain s e) as [|[|]|l t x] eqn:Ev; try discriminate.
    - inversion E; subst. simpl in W. rewrite Ev in W. inversion W. auto.
    - rewrite W in E. destruct (write_all s tr0 (repeat (Some false) (nlevels s))); [|discriminate].
      inversion E. auto. }
  destruct H0 as [-> ->].
  exists s', r. split; [exact P|]. split; [exact B'|]. split; [exact X|]. split; [exact G'|].
  intros a. unfold den_z. change (fun_zbdd s' (eref r) a) with (Fz s' 0 (eref r) a).
  rewrite (D' 0 a ltac:(lia)). symmetry. apply (agrees_zsatb s a cb tr Wc).
Qed.

Theorem pick_dd_z_false : forall s st e,
  pick_cube_z St choice s st e = Some None ->
  pick_cube_dd_z St choice s st e = Some (s, e, [], st).
Proof.
  intros s st e E. unfold pick_cube_z in E. unfold pick_cube_dd_z. cbn [pick_dd_z].
  destruct (view_plain s e) as [|[|]|l t x] eqn:Ev; try discriminate; [reflexivity|].
  destruct (walk_z St choice (S (nlevels s)) s st e) as [[tr st']|]; [|discriminate].
  destruct (write_all s tr (repeat (Some false) (nlevels s))); discriminate.
Qed.

Theorem pick_dd_z_implicant : forall s st e s' r tr st', ZbddOK s -> good_z s e ->
  pick_cube_dd_z St choice s st e = Some (s', r, tr, st') ->
  ZbddOK s' /\ extends s s' /\ good_z s' r /\
  (forall a, den_z s' r a = true -> den_z s' e a = true) /\
  ((forall a, den_z s' r a = false) <-> (forall a, den_z s e a = false)).
Proof.
  intros s st e s' r tr st' B G E.
  destruct (pick_cube_z_total St choice s st e B G) as [[[[cb tr0] st0]|] Ep].
  - destruct (pick_dd_z_same_cube s st e cb tr0 st0 B G Ep) as [s1 [r1 [P [B1 [X1 [G1 D1]]]]]].
    rewrite P in E. inversion E; subst.
    split; [exact B1|]. split; [exact X1|]. split; [exact G1|]. split.
    + intros a Ha. rewrite (den_z_extends s s' e a B X1 G).
      apply (pick_cube_z_implicant St choice s st e cb tr st' B G Ep). apply D1. exact Ha.
    + split.
      * intros Hf. exfalso.
        destruct (pick_cube_z_some St choice s st e cb tr st' B G Ep) as [R [Lc Wc]].
        assert (Ha : agrees s (follow tr) cb).
        { apply (agrees_zsatb s (follow tr) cb tr Wc). apply zsatb_follow. }
        apply D1 in Ha. rewrite Hf in Ha. discriminate.
      * intros Hf. exfalso.
        pose proof (proj2 (pick_cube_z_none_iff St choice s st e B G) Hf). congruence.
  - rewrite (pick_dd_z_false s st e Ep) in E. inversion E; subst.
    split; [exact B|]. split; [apply extends_refl|]. split; [exact G|]. split; [auto|]. tauto.
Qed.

End PickDdZ.

(** ** [pick_cube_dd_set] *)

(** the literal set as a ZBDD cube (see [cube_lits_z]) *)
Inductive CubeZ (s : snap) : edge -> list (nat * bool) -> Prop :=
| CZ_end : forall e, view_plain s e = CTerm true -> CubeZ s e []
| CZ_dc : forall e l hi lo L, view_plain s e = CNode l hi lo -> hi = lo ->
    CubeZ s hi L -> CubeZ s e ((l, true) :: L)
| CZ_pos : forall e l hi lo L, view_plain s e = CNode l hi lo -> hi <> lo -> isfz s lo = true ->
    CubeZ s hi L -> CubeZ s e ((l, false) :: L).

Lemma cube_lits_z_CubeZ : forall fuel s e L, cube_lits_z fuel s e = Some L -> CubeZ s e L.
Proof.
  induction fuel as [|f IH]; intros s e L E; simpl in E; [discriminate|].
  destruct (view_plain s e) as [|b|l hi lo] eqn:Ev; [discriminate| |].
  - destruct b; [|discriminate]. inversion E. apply CZ_end. exact Ev.
  - destruct (edge_eqb hi lo) eqn:Eq.
    + destruct (cube_lits_z f s hi) as [L'|] eqn:El; [|discriminate]. simpl in E. inversion E.
      eapply CZ_dc; eauto. apply edge_eqb_eq. exact Eq.
    + destruct (isfz s lo) eqn:Fl; [|discriminate].
      destruct (cube_lits_z f s hi) as [L'|] eqn:El; [|discriminate]. simpl in E. inversion E.
      eapply CZ_pos; eauto. intros Heq. apply edge_eqb_eq in Heq. congruence.
Qed.

Lemma CubeZ_levels : forall s e L, ZbddOK s -> CubeZ s e L -> good_z s e ->
  forall l b, In (l, b) L -> rlevel s (eref e) <= l.
Proof.
  intros s e L B C. induction C as [e Ev | e l hi lo L Ev Heq C IH | e l hi lo L Ev Hne Fl C IH]; intros G l0 b Hin.
  - destruct Hin.
  - destruct (z_view_node s B e l hi lo G Ev) as [El [Ll [Gh [Gl [Lh _]]]]].
    destruct Hin as [Hin|Hin]; [inversion Hin; lia|]. specialize (IH Gh l0 b Hin). lia.
  - destruct (z_view_node s B e l hi lo G Ev) as [El [Ll [Gh [Gl [Lh _]]]]].
    destruct Hin as [Hin|Hin]; [inversion Hin; lia|]. specialize (IH Gh l0 b Hin). lia.
Qed.

Lemma zlit_of_absent : forall L l, (forall l' b, In (l', b) L -> l < l') -> zlit_of L l = ZNeg.
Proof.
  induction L as [|[l0 b0] r IH]; intros l Hl; simpl; [reflexivity|].
  destruct (Nat.eqb_spec l0 l) as [E|_].
  - specialize (Hl l0 b0 (or_introl eq_refl)). lia.
  - apply IH. intros l' b Hin. apply (Hl l' b). right. exact Hin.
Qed.

(** [set_pop] on a cube: the literal set from [until] on, and the node of
    level [until] iff the variable is not a negative literal *)
Lemma set_pop_cubez : forall fuel s set L until, ZbddOK s -> good_z s set -> CubeZ s set L ->
  nlevels s - rlevel s (eref set) < fuel -> until < nlevels s ->
  exists set' L' nodeinfo, set_pop_z fuel s set until = Some (set', nodeinfo) /\ good_z s set' /\
    CubeZ s set' L' /\ (forall l, until <= l -> zlit_of L' l = zlit_of L l) /\
    zlit_of L until =
    match nodeinfo with
    | Some (shi, slo) => if edge_eqb shi slo then ZAbsent else ZPos
    | None => ZNeg
    end.
Proof.
  induction fuel as [|f IH]; intros s set L until B G C Hf Hu; [lia|].
  simpl.
  assert (Hstep : forall e l hi lo L0 dnc, view_plain s e = CNode l hi lo -> good_z s e ->
            CubeZ s e ((l, dnc) :: L0) -> CubeZ s hi L0 -> dnc = edge_eqb hi lo ->
            nlevels s - rlevel s (eref e) < S f ->
            exists set' L' nodeinfo,
              match Nat.compare l until with
              | Lt => set_pop_z f s hi until
              | Eq => Some (e, Some (hi, lo))
              | Gt => Some (e, None)
              end = Some (set', nodeinfo) /\ good_z s set' /\ CubeZ s set' L' /\
              (forall l1, until <= l1 -> zlit_of L' l1 = zlit_of ((l, dnc) :: L0) l1) /\
              zlit_of ((l, dnc) :: L0) until =
              match nodeinfo with
              | Some (shi, slo) => if edge_eqb shi slo then ZAbsent else ZPos
              | None => ZNeg
              end).
  { intros e l hi lo L0 dnc Ev Ge Ce Ch Hd Hfe.
    destruct (z_view_node s B e l hi lo Ge Ev) as [El [Ll [Gh [Gl [Lh _]]]]].
    pose proof (rlevel_le s (zo_wf s B) (eref hi)).
    destruct (Nat.compare_spec l until) as [Heq|Hlt|Hgt].
    - subst until. exists e, ((l, dnc) :: L0), (Some (hi, lo)).
      split; [reflexivity|]. split; [exact Ge|]. split; [exact Ce|]. split; [reflexivity|].
      simpl. rewrite Nat.eqb_refl, <- Hd. reflexivity.
    - destruct (IH s hi L0 until B Gh Ch ltac:(lia) Hu) as [set' [L' [ni [P [G' [C' [Hp Hz]]]]]]].
      exists set', L', ni. split; [exact P|]. split; [exact G'|]. split; [exact C'|]. split.
      + intros l1 Hl1. rewrite (Hp l1 Hl1). simpl. destruct (Nat.eqb_spec l l1); [lia | reflexivity].
      + rewrite <- Hz. simpl. destruct (Nat.eqb_spec l until); [lia | reflexivity].
    - exists e, ((l, dnc) :: L0), None.
      split; [reflexivity|]. split; [exact Ge|]. split; [exact Ce|]. split; [reflexivity|].
      apply zlit_of_absent. intros l' b [Hin|Hin]; [inversion Hin; lia|].
      pose proof (CubeZ_levels s hi L0 B Ch Gh l' b Hin). lia. }
  destruct C as [e Ev | e l hi lo L Ev Heq C | e l hi lo L Ev Hne Fl C].
  - rewrite Ev. exists e, [], None. split; [reflexivity|]. split; [exact G|].
    split; [apply CZ_end; exact Ev|]. split; reflexivity.
  - rewrite Ev. apply (Hstep e l hi lo L true Ev G); [eapply CZ_dc; eauto | exact C | | exact Hf].
    symmetry. apply edge_eqb_eq. exact Heq.
  - rewrite Ev. apply (Hstep e l hi lo L false Ev G); [eapply CZ_pos; eauto | exact C | | exact Hf].
    destruct (edge_eqb hi lo) eqn:Eq; [apply edge_eqb_eq in Eq; contradiction | reflexivity].
Qed.

(** how the literal set decides at a visited node *)
Definition set_rule (s : snap) (L : list (nat * bool)) (p : step) : Prop :=
  exists hi lo, view_plain s (sp_edge p) = CNode (sp_level p) hi lo /\
    if isfz s lo then sp_asked p = false /\ sp_val p = Some true
    else sp_asked p = true /\
         sp_val p = match zlit_of L (sp_level p) with
                    | ZPos => Some true
                    | ZNeg => Some false
                    | ZAbsent => if edge_eqb hi lo then None else Some true
                    end.

Lemma pick_dd_set_z_spec : forall L fuel s e set Lc, ZbddOK s -> good_z s e -> good_z s set ->
  CubeZ s set Lc -> (forall l, rlevel s (eref e) <= l -> zlit_of Lc l = zlit_of L l) ->
  isfz s e = false -> nlevels s - rlevel s (eref e) < fuel ->
  exists s' r tr, pick_dd_set_z fuel s e set = Some (s', r, tr) /\
    dd_ok s (rlevel s (eref e)) s' r tr /\ PathZ s e tr /\ forall p, In p tr -> set_rule s L p.
Proof.
  intros L. induction fuel as [|f IH]; intros s e set Lc B G Gs C HL Hnf Hf; [lia|].
  cbn [pick_dd_set_z]. unfold is_false in Hnf.
  destruct (view_plain s e) as [|b|l hi lo] eqn:Ev.
  - exfalso. apply (z_view_err s B e G Ev).
  - destruct b; [|discriminate]. exists s, e, [].
    split; [reflexivity|]. split; [apply dd_ok_term; assumption|].
    split; [apply PZ_end; exact Ev | intros p []].
  - destruct (z_view_node s B e l hi lo G Ev) as [El [Ll [Gh [Gl [Lh [Llo [Fh _]]]]]]].
    pose proof (rlevel_le s (zo_wf s B) (eref hi)) as Bh. pose proof (rlevel_le s (zo_wf s B) (eref lo)) as Bl.
    pose proof (rlevel_le s (zo_wf s B) (eref set)) as Bs.
    destruct (set_pop_cubez (S (nlevels s)) s set Lc l B Gs C ltac:(lia) Ll)
      as [set' [L' [ni [P [G' [C' [Hp Hz]]]]]]].
    rewrite P. rewrite (HL l ltac:(lia)) in Hz.
    (* the decision *)
    assert (Hdec : exists c dnc asked : bool,
      (if isfz s lo then (true, false, false)
       else match ni with
            | Some (shi, slo) => (true, if edge_eqb shi slo then edge_eqb hi lo else false, true)
            | None => (false, false, true)
            end) = (c, dnc, asked) /\
      (dnc = true -> hi = lo /\ c = true) /\ isfz s (if c then hi else lo) = false /\
      (if isfz s lo then asked = false /\ (if dnc then None else Some c) = Some true
       else asked = true /\
            (if dnc then None else Some c) =
            match zlit_of L l with
            | ZPos => Some true
            | ZNeg => Some false
            | ZAbsent => if edge_eqb hi lo then None else Some true
            end)).
    { destruct (isfz s lo) eqn:Fl.
      - exists true, false, false. repeat split; auto; discriminate.
      - destruct ni as [[shi slo]|].
        + destruct (edge_eqb shi slo) eqn:Es.
          * exists true, (edge_eqb hi lo), true. rewrite Hz. split; [reflexivity|].
            split; [intros Hd; split; [apply edge_eqb_eq; exact Hd | reflexivity]|].
            split; [exact Fh|]. split; reflexivity.
          * exists true, false, true. rewrite Hz. repeat split; auto; discriminate.
        + exists false, false, true. rewrite Hz. repeat split; auto; discriminate. }
    destruct Hdec as [c [dnc [asked [Ed [Hdnc [Fc Hrule]]]]]]. rewrite Ed.
    assert (Gc : good_z s (if c then hi else lo)) by (destruct c; assumption).
    assert (Lc' : l < rlevel s (eref (if c then hi else lo))) by (destruct c; assumption).
    destruct (IH s (if c then hi else lo) set' L' B Gc G' C'
                ltac:(intros l0 Hl0; rewrite (Hp l0 ltac:(lia)); apply HL; lia) Fc ltac:(destruct c; lia))
      as [s1 [sub [tr [Pd [D [Pz Hr]]]]]].
    rewrite Pd.
    destruct (build_step s e l hi lo c dnc asked s1 sub tr B G Ev Hdnc D) as [s2 [r [Eb D2]]].
    exists s2, r, (mkStep l e (if dnc then None else Some c) asked :: tr).
    split; [destruct c; [rewrite Eb; reflexivity | inversion Eb; reflexivity]|].
    split; [rewrite <- El; exact D2|]. split.
    + apply (PZ_step s e l hi lo (if dnc then None else Some c) asked tr Ev).
      * intros Hv. destruct dnc; [apply Hdnc; reflexivity | discriminate].
      * destruct dnc; [destruct (Hdnc eq_refl) as [_ ->]; exact Pz | destruct c; exact Pz].
    + intros p [<-|Hp']; [|apply Hr; exact Hp'].
      exists hi, lo. simpl. split; [exact Ev|]. destruct (isfz s lo); exact Hrule.
Qed.

(** [pick_cube_dd_set] with a literal set that is a cube diagram: the result
    is a non-empty cube (exactly the literals of the trace, false elsewhere)
    that implies the function; the values follow [set_rule] *)
Theorem pick_dd_set_z_ok : forall s e set L, ZbddOK s -> good_z s e -> good_z s set ->
  cube_lits_z (S (nlevels s)) s set = Some L -> isfz s e = false ->
  exists s' r tr, pick_cube_dd_set_z s e set = Some (s', r, tr) /\
    ZbddOK s' /\ extends s s' /\ good_z s' r /\
    (forall a, den_z s' r a = zsatb s a 0 tr) /\
    (forall a, den_z s' r a = true -> den_z s' e a = true) /\
    (exists a, den_z s' r a = true) /\
    forall p, In p tr -> set_rule s L p.
Proof.
  intros s e set L B G Gs E Hnf. unfold pick_cube_dd_set_z.
  pose proof (rlevel_le s (zo_wf s B) (eref e)).
  destruct (pick_dd_set_z_spec L (S (nlevels s)) s e set L B G Gs (cube_lits_z_CubeZ _ _ _ _ E)
              ltac:(reflexivity) Hnf ltac:(lia)) as [s' [r [tr [P [[B' [X [G' [F' [L' [T' D']]]]]] [Pz Hr]]]]]].
  exists s', r, tr. split; [exact P|]. split; [exact B'|]. split; [exact X|]. split; [exact G'|].
  assert (Hd : forall a, den_z s' r a = zsatb s a 0 tr).
  { intros a. unfold den_z. change (fun_zbdd s' (eref r) a) with (Fz s' 0 (eref r) a). apply D'. lia. }
  split; [exact Hd|]. split.
  - intros a Ha. rewrite (den_z_extends s s' e a B X G). unfold den_z.
    change (fun_zbdd s (eref e) a) with (Fz s 0 (eref e) a).
    apply (pathz_sem s B e tr Pz G 0 a ltac:(lia)). rewrite <- Hd. exact Ha.
  - split; [|exact Hr]. exists (follow tr). rewrite Hd. apply zsatb_follow.
Qed.

Theorem pick_dd_set_z_false : forall s e set, isfz s e = true ->
  pick_cube_dd_set_z s e set = Some (s, e, []).
Proof.
  intros s e set. unfold is_false, pick_cube_dd_set_z. cbn [pick_dd_set_z].
  destruct (view_plain s e) as [|[|]|]; try discriminate. reflexivity.
Qed.

(** ** [pick_cube_uniform] *)

Lemma count_zbdd_spec : forall s e, ZbddOK s -> good_z s e ->
  count_zbdd s e = Zc s (rlevel s (eref e)) (eref e).
Proof.
  intros s e B [G _]. unfold count_zbdd.
  rewrite (sat_zbdd_correct s (nlevels s) (eref e) (zo_wf s B) (zo_kind s B) (le_n _) G).
  rewrite Nat.sub_diag. change (2 ^ N.of_nat 0)%N with 1%N. rewrite N.mul_1_l.
  rewrite <- (Zc_lower s (zo_wf s B) (rlevel s (eref e)) 0 (eref e) G eq_refl).
  unfold Zc, count_levels. rewrite Nat.sub_0_r. reflexivity.
Qed.

Lemma count_zbdd_term : forall s e b, ZbddOK s -> good_z s e -> view_plain s e = CTerm b ->
  count_zbdd s e = if b then 1%N else 0%N.
Proof.
  intros s e b B G Ev. rewrite (count_zbdd_spec s e B G).
  destruct (view_plain_term s e b Ev) as [t [Er Et]]. rewrite Er. simpl rlevel.
  unfold Zc. rewrite Nat.sub_diag. simpl. rewrite (Fz_term s (nlevels s) t _ _ Et).
  rewrite Nat.sub_diag. simpl. destruct b; reflexivity.
Qed.

Lemma count_zbdd_node : forall s e l hi lo, ZbddOK s -> good_z s e -> view_plain s e = CNode l hi lo ->
  (count_zbdd s e = count_zbdd s hi + count_zbdd s lo)%N.
Proof.
  intros s e l hi lo B G Ev.
  destruct (z_view_node s B e l hi lo G Ev) as [El [Ll [Gh [Gl [Lh [Llo _]]]]]].
  destruct (view_plain_node s e l hi lo Ev) as [id [nd [Er [E [Hc Hl]]]]].
  rewrite (wf_stored s (zo_wf s B) id nd E) in Hl. subst l.
  rewrite (count_zbdd_spec s e B G), (count_zbdd_spec s hi B Gh), (count_zbdd_spec s lo B Gl).
  rewrite Er, (rlevel_node s id nd E), (Zc_node s (zo_wf s B) id nd hi lo E Hc).
  rewrite (Zc_lower s (zo_wf s B) (rlevel s (eref hi) - S (nlevel nd)) (S (nlevel nd)) (eref hi) (proj1 Gh) ltac:(lia)).
  rewrite (Zc_lower s (zo_wf s B) (rlevel s (eref lo) - S (nlevel nd)) (S (nlevel nd)) (eref lo) (proj1 Gl) ltac:(lia)).
  reflexivity.
Qed.

(** number of don't-care entries a trace writes *)
Definition dcs (tr : list step) : nat :=
  length (filter (fun p => match sp_val p with None => true | Some _ => false end) tr).

(** probability of a trace = 2^(don't cares) / #models ([count_zbdd]: the
    number of sets of the family = models over all levels) *)
Theorem runz_weight : forall s, ZbddOK s -> forall St choice st e tr st',
  RunZ s St choice st e tr st' -> good_z s e ->
  let (num, dn) := trace_weight view_plain count_zbdd s tr in
  (0 < num /\ 0 < dn /\ 0 < count_zbdd s e /\ num * count_zbdd s e = dn * 2 ^ N.of_nat (dcs tr))%N.
Proof.
  intros s B St choice st e tr st' R.
  induction R as [st e Ev | st e l hi lo tr st' Ev Heq R IH | st e l hi lo tr st' Ev Hne Fl R IH
                 | st e l hi lo c st1 tr st' Ev Hne Fl Ec R IH]; intros G.
  - simpl. rewrite (count_zbdd_term s e true B G Ev). change (2 ^ N.of_nat 0)%N with 1%N. lia.
  - destruct (z_view_node s B e l hi lo G Ev) as [El [Ll [Gh [Gl _]]]].
    pose proof (count_zbdd_node s e l hi lo B G Ev) as Hn. rewrite <- Heq in Hn.
    specialize (IH Gh). cbn [trace_weight sp_asked].
    destruct (trace_weight view_plain count_zbdd s tr) as [num dn]. destruct IH as [A [B0 [C D]]].
    unfold dcs. cbn [filter sp_val length]. fold (dcs tr). rewrite pow2_S.
    split; [exact A|]. split; [exact B0|]. split; [lia|]. rewrite Hn. lia.
  - destruct (z_view_node s B e l hi lo G Ev) as [El [Ll [Gh [Gl _]]]].
    pose proof (count_zbdd_node s e l hi lo B G Ev) as Hn.
    assert (Z : count_zbdd s lo = 0%N).
    { unfold is_false in Fl. destruct (view_plain s lo) as [|[|]|] eqn:Vl; try discriminate.
      apply (count_zbdd_term s lo false B Gl Vl). }
    specialize (IH Gh). cbn [trace_weight sp_asked].
    destruct (trace_weight view_plain count_zbdd s tr) as [num dn]. destruct IH as [A [B0 [C D]]].
    unfold dcs. cbn [filter sp_val]. fold (dcs tr).
    split; [exact A|]. split; [exact B0|]. split; [lia|]. rewrite Hn, Z, N.add_0_r. exact D.
  - destruct (z_view_node s B e l hi lo G Ev) as [El [Ll [Gh [Gl _]]]].
    pose proof (count_zbdd_node s e l hi lo B G Ev) as Hn.
    assert (G' : good_z s (if c then hi else lo)) by (destruct c; assumption).
    specialize (IH G'). cbn [trace_weight sp_asked sp_edge sp_val]. rewrite Ev.
    destruct (trace_weight view_plain count_zbdd s tr) as [num dn]. destruct IH as [A [B0 [C D]]].
    unfold dcs. cbn [filter sp_val]. fold (dcs tr). rewrite <- Hn.
    assert (P : (0 < count_zbdd s e)%N) by (destruct c; lia).
    split; [apply N.mul_pos_pos; assumption|]. split; [apply N.mul_pos_pos; assumption|].
    split; [exact P|].
    replace (num * count_zbdd s (if c then hi else lo) * count_zbdd s e)%N
      with ((num * count_zbdd s (if c then hi else lo)) * count_zbdd s e)%N by lia.
    rewrite D. lia.
Qed.

Theorem count_zbdd_models : forall s e, ZbddOK s -> good_z s e ->
  count_zbdd s e = count_levels (nlevels s) (fun_zbdd s (eref e)).
Proof.
  intros s e B [G _]. unfold count_zbdd.
  rewrite (sat_zbdd_correct s (nlevels s) (eref e) (zo_wf s B) (zo_kind s B) (le_n _) G).
  rewrite Nat.sub_diag. change (2 ^ N.of_nat 0)%N with 1%N. lia.
Qed.

Theorem pick_uniform_z_model : forall draws s e cb tr k, ZbddOK s -> good_z s e ->
  pick_uniform_z draws s e = Some (Some (cb, tr, k)) ->
  forall a, agrees s a cb -> den_z s e a = true.
Proof.
  intros draws s e cb tr k B G E.
  apply (pick_cube_z_implicant nat (uni_choice_z draws s) s 0 e cb tr k B G E).
Qed.

Theorem pick_uniform_z_none_iff : forall draws s e, ZbddOK s -> good_z s e ->
  (pick_uniform_z draws s e = Some None <-> forall a, den_z s e a = false).
Proof.
  intros draws s e B G.
  apply (pick_cube_z_none_iff nat (uni_choice_z draws s) s 0 e B G).
Qed.
