(** * Infrastructure for the proofs about DD/QuantBcdd.v (complement-edge kind)

    The level-indexed semantics ([qlevs], [restr], DD/QuantLemmas.v) is shared
    with the plain BDD kind; this file adds what depends on edges with
    complement tags: the chains the algorithms read ([VChainC], [LChainC] with
    the polarity of [restrict]'s walk), [cset_pop], the frame lemmas for
    [capply_bin] / [capply_ite], the cache invariant [QCacheOKC] and
    [qcresult_ok]. *)

From Coq Require Import List NArith PArith Bool Arith Lia FMapPositive.
From OxiVerif Require Import DD.Table DD.TableProofs DD.Canon DD.CanonBcdd DD.Sem DD.Build DD.BuildProofs
  DD.Apply DD.ApplyProofs DD.ApplyBcdd DD.ApplyBcddProofs DD.ApplyBcddIte DD.PickInsert
  DD.Quant DD.QuantLemmas DD.QuantBcdd.
Import ListNotations.

Lemma denc_cext : forall s e phi, WF s -> DenC s e phi -> cext phi.
Proof. intros s e phi H D. eapply cext_indep. apply (denc_indep s e phi H D). Qed.

(** the function of an edge to the terminal depends on no level *)
Lemma denc_term_nodep : forall s e t phi l, DenC s e phi -> eref e = RT t -> nodep phi l.
Proof.
  intros s e t phi l D Er c i Hc Hi.
  rewrite (denc_term s e t phi D Er c Hc), (denc_term s e t phi D Er _ (bchoice_upd c l i Hc Hi)).
  reflexivity.
Qed.

Lemma denc_term_const : forall s e t phi c c', DenC s e phi -> eref e = RT t ->
  bchoice c -> bchoice c' -> phi c = phi c'.
Proof.
  intros s e t phi c c' D Er Hc Hc'.
  rewrite (denc_term s e t phi D Er c Hc), (denc_term s e t phi D Er c' Hc'). reflexivity.
Qed.

Lemma denc_node : forall s f id nd phi, BcOK s -> DenC s f phi -> eref f = RN id -> find_node s id = Some nd ->
  nlevel nd < nlevels s /\ indep phi (nlevel nd) /\
  exists a b, nchildren nd = [a; b] /\
    DenC s (retag (etag f) a) (cofn phi (nlevel nd) 0) /\ DenC s (retag (etag f) b) (cofn phi (nlevel nd) 1) /\
    nlevel nd < rlevel s (eref a) /\ nlevel nd < rlevel s (eref b).
Proof.
  intros s f id nd phi B D Er En. pose proof (bc_wf s B) as H.
  split; [apply (wf_level s H id nd En)|].
  split; [rewrite <- (rlevel_node s id nd En), <- Er; apply (denc_indep s _ phi H D)|].
  destruct (bcdd_children s id nd B En) as [a [b Ech]]. exists a, b. split; [exact Ech|].
  split; [apply (denc_child s f id nd 0 a phi B D Er En); rewrite Ech; reflexivity|].
  split; [apply (denc_child s f id nd 1 b phi B D Er En); rewrite Ech; reflexivity|].
  destruct (children2 s id nd a b H En Ech) as [[_ La] [_ Lb]]. split; assumption.
Qed.

(** ** Canonical denotation of an edge; substitution semantics *)

Definition dfunC (s : snap) (e : edge) : cfun :=
  fun c => match semc s (S (nlevels s)) e c with Some b => b | None => false end.

Lemma den_dfunC : forall s e, BcOK s -> ref_ok s (eref e) -> DenC s e (dfunC s e).
Proof.
  intros s e B Hok. split; [exact Hok|]. intros c Hc. unfold dfunC.
  destruct (denc_exists s e B Hok) as [phi [_ D]]. rewrite (D c Hc). reflexivity.
Qed.

Lemma dfunC_den : forall s e phi, DenC s e phi -> forall c, bchoice c -> dfunC s e c = phi c.
Proof. intros s e phi [_ D] c Hc. unfold dfunC. rewrite (D c Hc). reflexivity. Qed.

Lemma dfunC_extends : forall s s' e c, WF s -> extends s s' -> ref_ok s (eref e) ->
  dfunC s' e c = dfunC s e c.
Proof.
  intros s s' e c H X Hok. unfold dfunC.
  rewrite (ext_nlevels _ _ X), (semc_extends s s' H X _ e c Hok). reflexivity.
Qed.

Definition schC (s : snap) (sv : list edge) (c : nat -> nat) : nat -> nat :=
  fun l => match nth_error sv l with
           | Some r => if dfunC s r c then 0 else 1
           | None => c l
           end.

Definition csubstC (s : snap) (sv : list edge) (phi : cfun) : cfun := fun c => phi (schC s sv c).

Definition pschC (s : snap) (pairs : list (nat * edge)) (c : nat -> nat) : nat -> nat :=
  fun l => match nth_error (s_l2v s) l with
           | Some v => match assoc_nat pairs v with
                       | Some r => if dfunC s r c then 0 else 1
                       | None => c l
                       end
           | None => c l
           end.

Definition psubstC (s : snap) (pairs : list (nat * edge)) (phi : cfun) : cfun :=
  fun c => phi (pschC s pairs c).

Definition pairs_okC (s : snap) (pairs : list (nat * edge)) : Prop :=
  forall v r, In (v, r) pairs -> ref_ok s (eref r).

Lemma schC_bchoice : forall s sv c, bchoice c -> bchoice (schC s sv c).
Proof.
  intros s sv. exact (gsch_bchoice edge (dfunC s) sv).
Qed.

Lemma pschC_bchoice : forall s pairs c, bchoice c -> bchoice (pschC s pairs c).
Proof.
  intros s pairs c Hc l. unfold pschC. destruct (nth_error (s_l2v s) l) as [v|]; [|apply Hc].
  destruct (assoc_nat pairs v) as [r|]; [destruct (dfunC s r c); lia | apply Hc].
Qed.

Lemma schC_extends : forall s s' sv c, WF s -> extends s s' -> Forall (fun e => ref_ok s (eref e)) sv ->
  ceq (schC s' sv c) (schC s sv c).
Proof.
  intros s s' sv c H X F l. unfold schC. destruct (nth_error sv l) as [r|] eqn:E; [|reflexivity].
  rewrite (dfunC_extends s s' r c H X); [reflexivity|].
  rewrite Forall_forall in F. apply F. eapply nth_error_In; eauto.
Qed.

Lemma pschC_extends : forall s s' pairs c, WF s -> extends s s' -> pairs_okC s pairs ->
  ceq (pschC s' pairs c) (pschC s pairs c).
Proof.
  intros s s' pairs c H X F l. unfold pschC. rewrite (ext_l2v _ _ X).
  destruct (nth_error (s_l2v s) l) as [v|]; [|reflexivity].
  destruct (assoc_nat pairs v) as [r|] eqn:E; [|reflexivity].
  rewrite (dfunC_extends s s' r c H X); [reflexivity|]. apply (F v r). apply assoc_nat_In. exact E.
Qed.

Lemma csubstC_extends : forall s s' sv phi, WF s -> extends s s' ->
  Forall (fun e => ref_ok s (eref e)) sv -> cext phi ->
  forall c, bchoice c -> csubstC s' sv phi c = csubstC s sv phi c.
Proof.
  intros s s' sv phi H X F Xp c Hc. unfold csubstC.
  apply Xp; auto using schC_bchoice. apply schC_extends; assumption.
Qed.

Lemma psubstC_extends : forall s s' pairs phi, WF s -> extends s s' -> pairs_okC s pairs -> cext phi ->
  forall c, bchoice c -> psubstC s' pairs phi c = psubstC s pairs phi c.
Proof.
  intros s s' pairs phi H X F Xp c Hc. unfold psubstC.
  apply Xp; auto using pschC_bchoice. apply pschC_extends; assumption.
Qed.

Lemma psubstC_ext : forall s pairs phi phi', (forall c, bchoice c -> phi c = phi' c) ->
  forall c, bchoice c -> psubstC s pairs phi c = psubstC s pairs phi' c.
Proof. intros s pairs phi phi' E c Hc. unfold psubstC. apply E. apply pschC_bchoice. exact Hc. Qed.

Lemma pairs_okC_extends : forall s s' pairs, extends s s' -> pairs_okC s pairs -> pairs_okC s' pairs.
Proof. intros s s' pairs X F v r Hin. apply (ext_ref_ok _ _ _ X). apply (F v r Hin). Qed.

Definition SvOKC (s : snap) (sv : list edge) (pairs : list (nat * edge)) : Prop :=
  Forall (fun e => ref_ok s (eref e)) sv /\ pairs_okC s pairs /\
  forall c, bchoice c -> ceq (schC s sv c) (pschC s pairs c).

Lemma svokc_extends : forall s s' sv pairs, WF s -> extends s s' -> SvOKC s sv pairs -> SvOKC s' sv pairs.
Proof.
  intros s s' sv pairs H X [F [P E]]. split; [|split].
  - eapply Forall_impl; [|exact F]. intros r. apply (ext_ref_ok _ _ _ X).
  - apply (pairs_okC_extends s s' pairs X P).
  - intros c Hc l. rewrite (schC_extends s s' sv c H X F l), (pschC_extends s s' pairs c H X P l).
    apply E. exact Hc.
Qed.

(** ** Chains *)

(** the levels along the then-children of a variable set *)
Inductive VChainC (s : snap) : edge -> list nat -> Prop :=
| VCC_T : forall e t, eref e = RT t -> VChainC s e []
| VCC_N : forall e id nd t x L, eref e = RN id -> find_node s id = Some nd -> nchildren nd = [t; x] ->
    VChainC s t L -> VChainC s e (nlevel nd :: L).

(** the literals [restrict::inner] reads of a cube given as (reference,
    accumulated polarity): then-child inner = positive literal (continue with
    it), then-child terminal = positive literal if the polarity is even (last
    literal), negative literal otherwise (continue with the else-child) *)
Inductive LChainC (s : snap) : ref -> bool -> list (nat * bool) -> Prop :=
| LCC_T : forall t neg, LChainC s (RT t) neg []
| LCC_pos : forall id neg nd t x tid M, find_node s id = Some nd -> nchildren nd = [t; x] ->
    eref t = RN tid -> LChainC s (RN tid) (xorb neg (etag t)) M ->
    LChainC s (RN id) neg ((nlevel nd, true) :: M)
| LCC_pos_last : forall id nd t x tt, find_node s id = Some nd -> nchildren nd = [t; x] ->
    eref t = RT tt -> LChainC s (RN id) false [(nlevel nd, true)]
| LCC_neg : forall id nd t x tt M, find_node s id = Some nd -> nchildren nd = [t; x] ->
    eref t = RT tt -> LChainC s (eref x) (negb (etag x)) M ->
    LChainC s (RN id) true ((nlevel nd, false) :: M).

Lemma vchainc_T_inv : forall s e t L, VChainC s e L -> eref e = RT t -> L = [].
Proof. intros s e t L V Er. inversion V; subst; [reflexivity | congruence]. Qed.

Lemma vchainc_N_inv : forall s e id nd L, VChainC s e L -> eref e = RN id -> find_node s id = Some nd ->
  exists t x L', nchildren nd = [t; x] /\ L = nlevel nd :: L' /\ VChainC s t L'.
Proof.
  intros s e id nd L V Er En. inversion V as [e' t' Er'|e' id' nd' t x L' Er' En' Ech V']; subst; [congruence|].
  rewrite Er in Er'. inversion Er'; subst id'. rewrite En in En'. inversion En'; subst nd'.
  exists t, x, L'. auto.
Qed.

Lemma lchainc_T_inv : forall s t neg M, LChainC s (RT t) neg M -> M = [].
Proof. intros s t neg M V. inversion V. reflexivity. Qed.

(** case analysis of a cube node as [restrict::inner] performs it *)
Lemma lchainc_N_inv : forall s id neg nd t x M, LChainC s (RN id) neg M -> find_node s id = Some nd ->
  nchildren nd = [t; x] ->
  match eref t with
  | RN tid => exists M1, M = (nlevel nd, true) :: M1 /\ LChainC s (RN tid) (xorb neg (etag t)) M1
  | RT _ =>
    if neg then exists M1, M = (nlevel nd, false) :: M1 /\ LChainC s (eref x) (negb (etag x)) M1
    else M = [(nlevel nd, true)]
  end.
Proof.
  intros s id neg nd t x M V En Ech.
  inversion V as [|id' neg' nd' t' x' tid' M1 En' Ech' Et' V1|id' nd' t' x' tt' En' Ech' Et'
                  |id' nd' t' x' tt' M1 En' Ech' Et' V1]; subst;
    rewrite En in En'; inversion En'; subst nd'; rewrite Ech in Ech'; inversion Ech'; subst t' x';
    rewrite Et'; eauto.
Qed.

Section Chains.
Variable s : snap.
Hypothesis B : BcOK s.

Lemma vchainc_asc : forall e L, VChainC s e L -> asc (rlevel s (eref e)) L.
Proof.
  intros e L V. induction V as [e t Er|e id nd t x L Er En Ech V IH]; [exact I|].
  rewrite Er, (rlevel_node s id nd En). split; [lia|].
  destruct (children2 s id nd t x (bc_wf s B) En Ech) as [[_ Hl] _]. apply (asc_mono _ _ _ IH). lia.
Qed.

Lemma vchainc_fun : forall e L L', VChainC s e L -> VChainC s e L' -> L = L'.
Proof.
  intros e L L' V. revert L'. induction V as [e t Er|e id nd t x L Er En Ech V IH]; intros L' V'.
  - symmetry. apply (vchainc_T_inv s e t L' V' Er).
  - destruct (vchainc_N_inv s e id nd L' V' Er En) as [t' [x' [L2 [Ech' [-> V2]]]]].
    rewrite Ech in Ech'. inversion Ech'; subst t' x'. f_equal. apply IH. exact V2.
Qed.

Lemma vchainc_exists : forall n e, ref_ok s (eref e) -> nlevels s - rlevel s (eref e) < n ->
  exists L, VChainC s e L.
Proof.
  induction n as [|n IH]; intros e Hok Hn; [lia|].
  destruct (eref e) as [t|id] eqn:Er; [exists []; eapply VCC_T; eauto|].
  destruct Hok as [nd En]. destruct (bcdd_children s id nd B En) as [t [x Ech]].
  destruct (children2 s id nd t x (bc_wf s B) En Ech) as [[Ot Hl] _].
  rewrite (rlevel_node s id nd En) in Hn.
  pose proof (rlevel_le s (bc_wf s B) (eref t)).
  destruct (IH t Ot ltac:(lia)) as [L V]. exists (nlevel nd :: L). eapply VCC_N; eauto.
Qed.

Lemma vchainc_total : forall e, ref_ok s (eref e) -> exists L, VChainC s e L.
Proof.
  intros e Hok. apply (vchainc_exists (S (nlevels s)) e Hok).
  pose proof (rlevel_le s (bc_wf s B) (eref e)). lia.
Qed.

Lemma vchainc_lt : forall e L l, VChainC s e L -> In l L -> l < nlevels s.
Proof.
  intros e L l V. induction V as [e t Er|e id nd t x L Er En Ech V IH]; intros Hin; [destruct Hin|].
  destruct Hin as [<-|Hin]; [apply (wf_level s (bc_wf s B) id nd En) | auto].
Qed.

Lemma lchainc_asc : forall r neg M, LChainC s r neg M -> asc (rlevel s r) (map fst M).
Proof.
  intros r neg M V.
  induction V as [t neg|id neg nd t x tid M En Ech Et V IH|id nd t x tt En Ech Et
                  |id nd t x tt M En Ech Et V IH]; [exact I| | |];
    rewrite (rlevel_node s id nd En); (split; [simpl; lia|]).
  - destruct (children2 s id nd t x (bc_wf s B) En Ech) as [[_ Hl] _]. rewrite Et in Hl.
    apply (asc_mono _ _ _ IH). cbn [fst]. lia.
  - exact I.
  - destruct (children2 s id nd t x (bc_wf s B) En Ech) as [_ [_ Hl]]. apply (asc_mono _ _ _ IH). cbn [fst]. lia.
Qed.

Lemma lchainc_fun : forall r neg M M', LChainC s r neg M -> LChainC s r neg M' -> M = M'.
Proof.
  intros r neg M M' V. revert M'.
  induction V as [t neg|id neg nd t x tid M En Ech Et V IH|id nd t x tt En Ech Et
                  |id nd t x tt M En Ech Et V IH]; intros M' V';
    [inversion V'; reflexivity | | |];
    pose proof (lchainc_N_inv s id _ nd t x M' V' En Ech) as Inv; rewrite Et in Inv.
  - destruct Inv as [M1 [-> V1]]. f_equal. apply IH. exact V1.
  - symmetry. exact Inv.
  - destruct Inv as [M1 [-> V1]]. f_equal. apply IH. exact V1.
Qed.

Lemma lchainc_exists : forall n r neg, ref_ok s r -> nlevels s - rlevel s r < n ->
  exists M, LChainC s r neg M.
Proof.
  induction n as [|n IH]; intros r neg Hok Hn; [lia|].
  destruct r as [t|id]; [exists []; constructor|].
  destruct Hok as [nd En]. destruct (bcdd_children s id nd B En) as [t [x Ech]].
  destruct (children2 s id nd t x (bc_wf s B) En Ech) as [[Ot Hlt] [Ox Hlx]].
  rewrite (rlevel_node s id nd En) in Hn.
  pose proof (rlevel_le s (bc_wf s B) (eref t)). pose proof (rlevel_le s (bc_wf s B) (eref x)).
  destruct (eref t) as [tt|tid] eqn:Et.
  - destruct neg.
    + destruct (IH (eref x) (negb (etag x)) Ox ltac:(lia)) as [M V].
      exists ((nlevel nd, false) :: M). eapply LCC_neg; eauto.
    + exists [(nlevel nd, true)]. eapply LCC_pos_last; eauto.
  - destruct (IH (RN tid) (xorb neg (etag t)) Ot ltac:(lia)) as [M V].
    exists ((nlevel nd, true) :: M). eapply LCC_pos; eauto.
Qed.

Lemma lchainc_total : forall r neg, ref_ok s r -> exists M, LChainC s r neg M.
Proof.
  intros r neg Hok. apply (lchainc_exists (S (nlevels s)) r neg Hok).
  pose proof (rlevel_le s (bc_wf s B) r). lia.
Qed.

End Chains.

Lemma vchainc_extends : forall s s' e L, extends s s' -> VChainC s e L -> VChainC s' e L.
Proof.
  intros s s' e L X V. induction V as [e t Er|e id nd t x L Er En Ech V IH]; [eapply VCC_T; eauto|].
  eapply VCC_N; eauto. apply (ext_nodes _ _ X). exact En.
Qed.

Lemma lchainc_extends : forall s s' r neg M, extends s s' -> LChainC s r neg M -> LChainC s' r neg M.
Proof.
  intros s s' r neg M X V.
  induction V as [t neg|id neg nd t x tid M En Ech Et V IH|id nd t x tt En Ech Et
                  |id nd t x tt M En Ech Et V IH]; [constructor| | |].
  - eapply LCC_pos; eauto. apply (ext_nodes _ _ X). exact En.
  - eapply LCC_pos_last; eauto. apply (ext_nodes _ _ X). exact En.
  - eapply LCC_neg; eauto. apply (ext_nodes _ _ X). exact En.
Qed.

(** ** [cset_pop] *)

Lemma cset_pop_S : forall n s set until,
  cset_pop (S n) s set until =
  match eref set with
  | RT _ => Some set
  | RN id =>
    match find_node s id with
    | None => None
    | Some nd =>
      if Nat.leb until (nstored nd) then Some set
      else match nchildren nd with
           | [t; _] => cset_pop n s t until
           | _ => None
           end
    end
  end.
Proof. intros n s set until. simpl. destruct (eref set); reflexivity. Qed.

Lemma cset_pop_ok : forall s, BcOK s -> forall fuel vars L until,
  ref_ok s (eref vars) -> VChainC s vars L -> nlevels s - rlevel s (eref vars) < fuel ->
  until <= nlevels s ->
  exists vars' L', cset_pop fuel s vars until = Some vars' /\ ref_ok s (eref vars') /\
    VChainC s vars' L' /\ until <= rlevel s (eref vars') /\
    exists pre, L = pre ++ L' /\ forall l, In l pre -> l < until.
Proof.
  intros s B. pose proof (bc_wf s B) as H.
  induction fuel as [|n IH]; intros vars L until Hok V Hf Hu; [lia|].
  rewrite cset_pop_S. destruct V as [e t Er|e id nd t x L Er En Ech V].
  - rewrite Er. exists e, []. split; [reflexivity|]. split; [exact Hok|].
    split; [eapply VCC_T; eauto|]. rewrite Er. simpl rlevel. split; [exact Hu|].
    exists []. split; [reflexivity | intros l []].
  - rewrite Er, En, (wf_stored s H id nd En). rewrite Er, (rlevel_node s id nd En) in Hf.
    destruct (Nat.leb_spec until (nlevel nd)) as [Hle|Hgt].
    + exists e, (nlevel nd :: L). split; [reflexivity|]. split; [exact Hok|].
      split; [eapply VCC_N; eauto|]. rewrite Er, (rlevel_node s id nd En).
      split; [exact Hle|]. exists []. split; [reflexivity | intros l []].
    + rewrite Ech.
      destruct (children2 s id nd t x H En Ech) as [[Ot Hl] _].
      pose proof (rlevel_le s H (eref t)).
      destruct (IH t L until Ot V ltac:(lia) Hu) as [vars' [L' [E [O' [V' [Hu' [pre [EL Hpre]]]]]]]].
      exists vars', L'. split; [exact E|]. split; [exact O'|]. split; [exact V'|].
      split; [exact Hu'|].
      exists (nlevel nd :: pre). split; [simpl; rewrite EL; reflexivity|].
      intros l [<-|Hin]; [exact Hgt | apply Hpre; exact Hin].
Qed.

(** ** Frame lemmas for the BCDD apply algorithms *)

Section Frame.
Variable lt : edge -> edge -> bool.
Variable C : Type.
Variable cget : C -> N -> list edge -> option edge.
Variable cadd : C -> N -> list edge -> edge -> C.
Hypothesis Hlossy : lossyC cget cadd.

(** everything [c'] serves under an operator code above [Ite] was served by [c] *)
Definition serves_fromC (c c' : C) : Prop :=
  forall k a r, cget c' k a = Some r -> (k <= 2)%N \/ cget c k a = Some r.

Lemma sfc_refl : forall c, serves_fromC c c.
Proof. intros c k a r E. right. exact E. Qed.

Lemma sfc_trans : forall c1 c2 c3, serves_fromC c1 c2 -> serves_fromC c2 c3 -> serves_fromC c1 c3.
Proof.
  intros c1 c2 c3 A A' k a r E. destruct (A' k a r E) as [Hk|E2]; [left; exact Hk | apply (A k a r E2)].
Qed.

Lemma sfc_add : forall c k a r, (k <= 2)%N -> serves_fromC c (cadd c k a r).
Proof.
  intros c k a r Hk k' a' r' E.
  destruct (Hlossy _ _ _ _ _ _ _ E) as [[-> _]|E']; [left; exact Hk | right; exact E'].
Qed.

Lemma cbin_step_frame : forall (rec : snap -> C -> edge -> edge -> option (snap * C * edge)),
  (forall s c f g s' c' r, rec s c f g = Some (s', c', r) -> serves_fromC c c') ->
  forall s c op f fnd g gnd s' c' r,
  cbin_step C cget cadd rec s c op f fnd g gnd = Some (s', c', r) -> serves_fromC c c'.
Proof.
  intros rec Hrec s c op f fnd g gnd s' c' r E. unfold cbin_step in E.
  destruct (cget c (cop_code op) [f; g]) as [h|]; [inversion E; subst; apply sfc_refl|].
  cbv zeta in E.
  destruct (ccof2 f fnd _) as [[ft fe]|]; [|discriminate].
  destruct (ccof2 g gnd _) as [[gt ge]|]; [|discriminate].
  destruct (rec s c ft gt) as [[[s1 c1] t]|] eqn:E1; [|discriminate].
  destruct (rec s1 c1 fe ge) as [[[s2 c2] e]|] eqn:E2; [|discriminate].
  destruct (cmk_node s2 _ t e) as [s3 h]. inversion E; subst.
  eapply sfc_trans; [apply (Hrec _ _ _ _ _ _ _ E1)|]. eapply sfc_trans; [apply (Hrec _ _ _ _ _ _ _ E2)|].
  apply sfc_add. destruct op; simpl; lia.
Qed.

Lemma capply_bin_frame : forall fuel s c op f g s' c' r,
  capply_bin lt C cget cadd fuel s c op f g = Some (s', c', r) -> serves_fromC c c'.
Proof.
  induction fuel as [|n IH]; intros s c op f g s' c' r E; [discriminate|].
  rewrite capply_bin_S in E. destruct (cterminal s op f g) as [h|fn gn|]; [| |discriminate].
  - inversion E; subst. apply sfc_refl.
  - destruct (lt f g);
      (eapply cbin_step_frame; [|exact E]; intros s0 c0 f0 g0 s0' c0' r0 E0; apply (IH _ _ _ _ _ _ _ _ E0)).
Qed.

Lemma onot_frame : forall (res : option (snap * C * edge)) c s' c' r,
  (forall s1 c1 r1, res = Some (s1, c1, r1) -> serves_fromC c c1) ->
  onot C res = Some (s', c', r) -> serves_fromC c c'.
Proof.
  intros res c s' c' r Hres E. destruct res as [[[s1 c1] r1]|]; [|discriminate].
  simpl in E. inversion E; subst. apply (Hres _ _ _ eq_refl).
Qed.

Lemma capply_ite_frame : forall fuel s c f g h s' c' r,
  capply_ite lt C cget cadd fuel s c f g h = Some (s', c', r) -> serves_fromC c c'.
Proof.
  assert (Bin : forall fuel s c op f g s' c' r,
             capply_bin lt C cget cadd fuel s c op f g = Some (s', c', r) -> serves_fromC c c')
    by apply capply_bin_frame.
  assert (NBin : forall fuel s c op f g s' c' r,
             onot C (capply_bin lt C cget cadd fuel s c op f g) = Some (s', c', r) -> serves_fromC c c').
  { intros fuel s c op f g s' c' r E. eapply onot_frame; [|exact E].
    intros s1 c1 r1 E1. apply (Bin _ _ _ _ _ _ _ _ _ E1). }
  induction fuel as [|n IH]; intros s c f g h s' c' r E; [discriminate|].
  rewrite capply_ite_S in E.
  destruct (ref_eqb (eref g) (eref h)).
  { destruct (Bool.eqb (etag g) (etag h)); [inversion E; subst; apply sfc_refl | eapply NBin; eauto]. }
  destruct (ref_eqb (eref f) (eref g)).
  { destruct (Bool.eqb (etag f) (etag g)); [eapply NBin; eauto | eapply Bin; eauto]. }
  destruct (ref_eqb (eref f) (eref h)).
  { destruct (Bool.eqb (etag f) (etag h)); [eapply Bin; eauto | eapply NBin; eauto]. }
  destruct (cnode s f) as [[fnd|]|]; [| |discriminate].
  2:{ inversion E; subst. apply sfc_refl. }
  destruct (cnode s g) as [[gnd|]|]; destruct (cnode s h) as [[hnd|]|]; try discriminate;
    try (destruct (etag g); [eapply Bin; eauto | eapply NBin; eauto]; fail);
    try (destruct (etag h); [eapply Bin; eauto | eapply NBin; eauto]; fail).
  unfold cite_step in E.
  destruct (cget c ccode_ite [f; g; h]) as [r0|]; [inversion E; subst; apply sfc_refl|].
  cbv zeta in E.
  destruct (ccof2 f fnd _) as [[ft fe]|]; [|discriminate].
  destruct (ccof2 g gnd _) as [[gt ge]|]; [|discriminate].
  destruct (ccof2 h hnd _) as [[ht he]|]; [|discriminate].
  destruct (capply_ite lt C cget cadd n s c ft gt ht) as [[[s1 c1] t]|] eqn:E1; [|discriminate].
  destruct (capply_ite lt C cget cadd n s1 c1 fe ge he) as [[[s2 c2] e]|] eqn:E2; [|discriminate].
  destruct (cmk_node s2 _ t e) as [s3 r1]. inversion E; subst.
  eapply sfc_trans; [apply (IH _ _ _ _ _ _ _ _ E1)|]. eapply sfc_trans; [apply (IH _ _ _ _ _ _ _ _ E2)|].
  apply sfc_add. unfold ccode_ite. lia.
Qed.

(** ** The cache invariant *)

Variable Sg : N -> option (list (nat * edge)).

(** the pointwise meaning of the three instances of [apply_quant]'s [OP] *)
Definition aqeval (o : aqop) (x y : bool) : bool :=
  match o with AQAnd => x && y | AQXor => xorb x y | AQNand => negb (x && y) end.

Definition cqentry_ok (s : snap) (code : N) (args : list edge) (r : edge) : Prop :=
  (forall q f vars, code = cqcode q -> args = [f; vars] ->
     exists phi L, DenC s f phi /\ VChainC s vars L /\ DenC s r (qlevs (qf q) L phi)) /\
  (forall f vars, code = ccode_restrict -> args = [f; vars] ->
     exists phi M, DenC s f phi /\ LChainC s (eref vars) (etag vars) M /\ DenC s r (restr M phi)) /\
  (forall q o f g vars, caqcode q o = Some code -> args = [f; g; vars] ->
     exists phi psi L, DenC s f phi /\ DenC s g psi /\ VChainC s vars L /\
       DenC s r (qlevs (qf q) L (fun c => aqeval o (phi c) (psi c)))) /\
  (forall id f, code = ccode_subst id -> args = [f] ->
     exists pairs phi, Sg id = Some pairs /\ pairs_okC s pairs /\ DenC s f phi /\
       DenC s r (psubstC s pairs phi)).

Definition QCacheOKC (s : snap) (c : C) : Prop :=
  CacheOKC cget s c /\ forall code args r, cget c code args = Some r -> cqentry_ok s code args r.

Lemma caqcode_range : forall q o k, caqcode q o = Some k -> (8 <= k <= 14)%N.
Proof. intros [] [] k E; simpl in E; inversion E; lia. Qed.

Lemma cqentry_ok_extends : forall s s' code args r, BcOK s -> extends s s' ->
  cqentry_ok s code args r -> cqentry_ok s' code args r.
Proof.
  intros s s' code args r B X [Q1 [Q2 [Q3 Q4]]]. split; [|split; [|split]].
  - intros q f vars Hc Ha. destruct (Q1 q f vars Hc Ha) as [phi [L [D [V Dr]]]].
    exists phi, L. split; [eapply denc_extends; eauto|]. split; [eapply vchainc_extends; eauto|].
    eapply denc_extends; eauto.
  - intros f vars Hc Ha. destruct (Q2 f vars Hc Ha) as [phi [M [D [V Dr]]]].
    exists phi, M. split; [eapply denc_extends; eauto|]. split; [eapply lchainc_extends; eauto|].
    eapply denc_extends; eauto.
  - intros q o f g vars Hc Ha. destruct (Q3 q o f g vars Hc Ha) as [phi [psi [L [D [D' [V Dr]]]]]].
    exists phi, psi, L. split; [eapply denc_extends; eauto|]. split; [eapply denc_extends; eauto|].
    split; [eapply vchainc_extends; eauto|]. eapply denc_extends; eauto.
  - intros id f Hc Ha. destruct (Q4 id f Hc Ha) as [pairs [phi [Es [F [D Dr]]]]].
    exists pairs, phi. split; [exact Es|]. split; [eapply pairs_okC_extends; eauto|].
    split; [eapply denc_extends; eauto|].
    apply (denc_ext s' r (psubstC s pairs phi)); [eapply denc_extends; eauto|].
    intros c0 Hc0. symmetry.
    apply (psubstC_extends s s' pairs phi (bc_wf s B) X F (denc_cext s f phi (bc_wf s B) D) c0 Hc0).
Qed.

Lemma cqentry_ok_low : forall s code args r, (code <= 2)%N -> cqentry_ok s code args r.
Proof.
  intros s code args r Hk. split; [|split; [|split]].
  - intros q f vars Hc. exfalso. destruct q; simpl in Hc; lia.
  - intros f vars Hc. exfalso. unfold ccode_restrict in Hc. lia.
  - intros q o f g vars Hc. exfalso. pose proof (caqcode_range q o code Hc). lia.
  - intros id f Hc. exfalso. unfold ccode_subst in Hc. lia.
Qed.

Lemma qcacheokc_frame : forall s s' c c', BcOK s -> extends s s' -> QCacheOKC s c ->
  CacheOKC cget s' c' -> serves_fromC c c' -> QCacheOKC s' c'.
Proof.
  intros s s' c c' B X [_ Q] O' Sf. split; [exact O'|].
  intros code args r E. destruct (Sf code args r E) as [Hk|E0].
  - apply cqentry_ok_low. exact Hk.
  - apply (cqentry_ok_extends s s' code args r B X). apply (Q _ _ _ E0).
Qed.

Lemma qcacheokc_extends : forall s s' c, BcOK s -> extends s s' -> QCacheOKC s c -> QCacheOKC s' c.
Proof.
  intros s s' c B X Q. apply (qcacheokc_frame s s' c c B X Q); [|apply sfc_refl].
  apply (ccacheok_extends C cget s s' c B X (proj1 Q)).
Qed.

Lemma centry_ok_high : forall s code args r, (2 < code)%N -> centry_ok s code args r.
Proof.
  intros s code args r Hk. unfold centry_ok.
  destruct args as [|f [|g [|h [|x rest]]]]; auto.
  - intros o Hc. destruct o; simpl in Hc; lia.
  - intros Hc. unfold ccode_ite in Hc. lia.
Qed.

Lemma qcacheokc_add : forall s c code args r, QCacheOKC s c -> (2 < code)%N ->
  cqentry_ok s code args r -> QCacheOKC s (cadd c code args r).
Proof.
  intros s c code args r [O Q] Hk Hn. split.
  - apply (ccacheok_add C cget cadd Hlossy); [exact O | apply centry_ok_high; exact Hk].
  - intros code' args' r' E.
    destruct (Hlossy _ _ _ _ _ _ _ E) as [[-> [-> ->]]|E']; [exact Hn | apply (Q _ _ _ E')].
Qed.

Lemma cqcode_inj : forall q q', cqcode q = cqcode q' -> q = q'.
Proof. intros [] [] E; simpl in E; try lia; reflexivity. Qed.

Lemma caqcode_inj : forall q o q' o' k, caqcode q o = Some k -> caqcode q' o' = Some k -> q = q' /\ o = o'.
Proof.
  intros q o q' o' k E E'. rewrite <- E' in E.
  destruct q, o, q', o'; first [split; reflexivity | discriminate E | discriminate E'].
Qed.

Lemma cqentry_quant : forall s q f vars r phi L,
  DenC s f phi -> VChainC s vars L -> DenC s r (qlevs (qf q) L phi) ->
  cqentry_ok s (cqcode q) [f; vars] r.
Proof.
  intros s q f vars r phi L D V Dr. split; [|split; [|split]].
  - intros q' f' vars' Hc Ha. apply cqcode_inj in Hc. subst q'. inversion Ha; subst. eauto.
  - intros f' vars' Hc. exfalso. unfold ccode_restrict in Hc. destruct q; simpl in Hc; lia.
  - intros q' o f' g' vars' Hc. exfalso. pose proof (caqcode_range q' o _ Hc). destruct q; simpl in *; lia.
  - intros id f' Hc. exfalso. unfold ccode_subst in Hc. destruct q; simpl in Hc; lia.
Qed.

Lemma cqentry_restrict : forall s f vars r phi M,
  DenC s f phi -> LChainC s (eref vars) (etag vars) M -> DenC s r (restr M phi) ->
  cqentry_ok s ccode_restrict [f; vars] r.
Proof.
  intros s f vars r phi M D V Dr. split; [|split; [|split]].
  - intros q f' vars' Hc. exfalso. unfold ccode_restrict in Hc. destruct q; simpl in Hc; lia.
  - intros f' vars' _ Ha. inversion Ha; subst. eauto.
  - intros q' o f' g' vars' Hc. exfalso. pose proof (caqcode_range q' o _ Hc). unfold ccode_restrict in *. lia.
  - intros id f' Hc. exfalso. unfold ccode_subst, ccode_restrict in Hc. lia.
Qed.

Lemma cqentry_aq : forall s q o k f g vars r phi psi L, caqcode q o = Some k ->
  DenC s f phi -> DenC s g psi -> VChainC s vars L ->
  DenC s r (qlevs (qf q) L (fun c => aqeval o (phi c) (psi c))) ->
  cqentry_ok s k [f; g; vars] r.
Proof.
  intros s q o k f g vars r phi psi L Ek D D' V Dr. pose proof (caqcode_range q o k Ek) as Hr.
  split; [|split; [|split]].
  - intros q' f' vars' Hc. exfalso. destruct q'; simpl in Hc; lia.
  - intros f' vars' Hc. exfalso. unfold ccode_restrict in Hc. lia.
  - intros q' o' f' g' vars' Hc Ha. destruct (caqcode_inj q' o' q o k Hc Ek) as [-> ->].
    inversion Ha; subst. exists phi, psi, L. auto.
  - intros id f' Hc. exfalso. unfold ccode_subst in Hc. lia.
Qed.

Lemma cqentry_subst : forall s id f r pairs phi,
  Sg id = Some pairs -> pairs_okC s pairs -> DenC s f phi -> DenC s r (psubstC s pairs phi) ->
  cqentry_ok s (ccode_subst id) [f] r.
Proof.
  intros s id f r pairs phi Es F D Dr. split; [|split; [|split]].
  - intros q' f' vars' Hc. exfalso. unfold ccode_subst in Hc. destruct q'; simpl in Hc; lia.
  - intros f' vars' Hc. exfalso. unfold ccode_subst, ccode_restrict in Hc. lia.
  - intros q' o' f' g' vars' Hc. exfalso. pose proof (caqcode_range q' o' _ Hc). unfold ccode_subst in *. lia.
  - intros id' f' Hc Ha. assert (id' = id) by (unfold ccode_subst in Hc; lia). subst id'.
    inversion Ha; subst. exists pairs, phi. auto.
Qed.

(** ** Results *)

Definition qcresult_ok (s : snap) (res : option (snap * C * edge)) (Phi : cfun) : Prop :=
  exists s' c' r, res = Some (s', c', r) /\
    BcOK s' /\ extends s s' /\ QCacheOKC s' c' /\ DenC s' r Phi.

Lemma qcresult_ok_ext : forall s res Phi Phi', qcresult_ok s res Phi ->
  (forall c0, bchoice c0 -> Phi c0 = Phi' c0) -> qcresult_ok s res Phi'.
Proof.
  intros s res Phi Phi' [s' [c' [r [E [B [X [Q D]]]]]]] Hp.
  exists s', c', r. repeat (split; [assumption|]). apply (denc_ext s' r Phi Phi' D Hp).
Qed.

Lemma qcresult_ok_here : forall s c r Phi, BcOK s -> QCacheOKC s c -> DenC s r Phi ->
  qcresult_ok s (Some (s, c, r)) Phi.
Proof.
  intros s c r Phi B Q D. exists s, c, r. split; [reflexivity|]. split; [exact B|].
  split; [apply extends_refl|]. split; [exact Q | exact D].
Qed.

Lemma qcresult_trans : forall s s1 res Phi, extends s s1 -> qcresult_ok s1 res Phi -> qcresult_ok s res Phi.
Proof.
  intros s s1 res Phi X [s' [c' [r [E [B' [X' [Q' D']]]]]]].
  exists s', c', r. split; [exact E|]. split; [exact B'|].
  split; [eapply extends_trans; eauto|]. split; assumption.
Qed.

Lemma qcresult_ok_bind : forall s res P (k : snap -> C -> edge -> option (snap * C * edge)) Phi,
  qcresult_ok s res P ->
  (forall s1 c1 t, BcOK s1 -> extends s s1 -> QCacheOKC s1 c1 -> DenC s1 t P -> qcresult_ok s1 (k s1 c1 t) Phi) ->
  qcresult_ok s (match res with Some (s1, c1, t) => k s1 c1 t | None => None end) Phi.
Proof.
  intros s res P k Phi [s1 [c1 [t [-> [B1 [X1 [Q1 D1]]]]]]] K.
  apply (qcresult_trans s s1 _ _ X1). apply K; assumption.
Qed.

Lemma qcresult_ok_cached : forall s res Phi code args, qcresult_ok s res Phi -> (2 < code)%N ->
  (forall s' r, extends s s' -> DenC s' r Phi -> cqentry_ok s' code args r) ->
  qcresult_ok s (match res with Some (s', c', r) => Some (s', cadd c' code args r, r) | None => None end) Phi.
Proof.
  intros s res Phi code args [s' [c' [r [-> [B' [X [Q' D]]]]]]] Hk Hn.
  exists s', (cadd c' code args r), r. split; [reflexivity|]. split; [exact B'|]. split; [exact X|].
  split; [|exact D]. apply (qcacheokc_add s' c' _ _ _ Q' Hk). apply Hn; assumption.
Qed.

Lemma qcresult_ok_node : forall s c lvl t e P0 P1 Phi code args,
  BcOK s -> QCacheOKC s c -> lvl < nlevels s -> DenC s t P0 -> DenC s e P1 ->
  indep P0 (S lvl) -> indep P1 (S lvl) ->
  (forall c0, bchoice c0 -> (if Nat.eqb (c0 lvl) 0 then P0 c0 else P1 c0) = Phi c0) ->
  (2 < code)%N ->
  (forall s' r, extends s s' -> DenC s' r Phi -> cqentry_ok s' code args r) ->
  qcresult_ok s (let '(s', h) := cmk_node s lvl t e in Some (s', cadd c code args h, h)) Phi.
Proof.
  intros s c lvl t e P0 P1 Phi code args B Q Hl Dt De I0 I1 HP Hk Hn.
  destruct (cmk_node s lvl t e) as [s' h] eqn:Em.
  destruct (cnode_step s lvl t e P0 P1 s' h B Hl Dt De I0 I1 Em) as [B' [X Dh]].
  apply (qcresult_ok_cached s (Some (s', c, h)) Phi code args); [|exact Hk | exact Hn].
  exists s', c, h. split; [reflexivity|]. split; [exact B'|]. split; [exact X|].
  split; [apply (qcacheokc_extends s s' c B X Q) | apply (denc_ext s' _ _ _ Dh HP)].
Qed.

Lemma qcresult_not : forall s res Phi, qcresult_ok s res Phi ->
  qcresult_ok s (onot C res) (fun c0 => negb (Phi c0)).
Proof.
  intros s res Phi [s' [c' [r [E [B [X [Q D]]]]]]].
  exists s', c', (enot r). split; [rewrite E; reflexivity|].
  split; [exact B|]. split; [exact X|]. split; [exact Q|]. apply denc_not. exact D.
Qed.

Lemma qcresult_of_result : forall s c res Phi, BcOK s -> QCacheOKC s c ->
  cresult_ok cget s c res Phi ->
  (forall s' c' r, res = Some (s', c', r) -> serves_fromC c c') ->
  qcresult_ok s res Phi.
Proof.
  intros s c res Phi B Q [s' [c' [r [E [B' [X [O' [D _]]]]]]]] Sf.
  exists s', c', r. split; [exact E|]. split; [exact B'|]. split; [exact X|].
  split; [|exact D]. apply (qcacheokc_frame s s' c c' B X Q O' (Sf _ _ _ E)).
Qed.

Lemma qc_apply_bin : forall op s c f g phi psi, BcOK s -> QCacheOKC s c -> DenC s f phi -> DenC s g psi ->
  qcresult_ok s (capply_bin lt C cget cadd (S (nlevels s)) s c op f g)
              (fun c0 => ceval op (phi c0) (psi c0)).
Proof.
  intros op s c f g phi psi B Q Df Dg. apply (qcresult_of_result s c _ _ B Q).
  - apply (capply_bin_ok lt C cget cadd Hlossy op _ s c f g phi psi B (proj1 Q) Df Dg). lia.
  - intros s' c' r E. apply (capply_bin_frame _ _ _ _ _ _ _ _ _ E).
Qed.

Lemma qc_apply_ite : forall s c f g h phi psi theta, BcOK s -> QCacheOKC s c ->
  DenC s f phi -> DenC s g psi -> DenC s h theta ->
  qcresult_ok s (capply_ite lt C cget cadd (S (nlevels s)) s c f g h)
              (fun c0 => if phi c0 then psi c0 else theta c0).
Proof.
  intros s c f g h phi psi theta B Q Df Dg Dh. apply (qcresult_of_result s c _ _ B Q).
  - apply (capply_ite_ok lt C cget cadd Hlossy _ s c f g h phi psi theta B (proj1 Q) Df Dg Dh). lia.
  - intros s' c' r E. apply (capply_ite_frame _ _ _ _ _ _ _ _ _ E).
Qed.

(** the combination step of [quant] / [apply_quant] *)
Lemma qc_combine : forall q s c t e P0 P1, BcOK s -> QCacheOKC s c -> DenC s t P0 -> DenC s e P1 ->
  qcresult_ok s (ccombine lt C cget cadd s c q t e) (fun c0 => qf q (P0 c0) (P1 c0)).
Proof.
  intros q s c t e P0 P1 B Q Dt De. destruct q; unfold ccombine, qf; simpl qop.
  - apply (qcresult_ok_ext s _ _ _ (qc_apply_bin CAnd s c t e P0 P1 B Q Dt De)). reflexivity.
  - apply (qcresult_ok_ext s _ (fun c0 => negb (ceval CAnd (negb (P0 c0)) (negb (P1 c0))))).
    + apply qcresult_not.
      apply (qc_apply_bin CAnd s c (enot t) (enot e) _ _ B Q (denc_not s t P0 Dt) (denc_not s e P1 De)).
    + intros c0 _. simpl. destruct (P0 c0), (P1 c0); reflexivity.
  - apply (qcresult_ok_ext s _ _ _ (qc_apply_bin CXor s c t e P0 P1 B Q Dt De)). reflexivity.
Qed.

(** the false terminal as a result *)
Lemma qc_false : forall s c Phi, BcOK s -> QCacheOKC s c -> (forall c0, bchoice c0 -> Phi c0 = false) ->
  qcresult_ok s (cfalse C s c) Phi.
Proof.
  intros s c Phi B Q Hp. unfold cfalse. destruct (cget_terminal_den s false B) as [e [Et T]].
  rewrite Et.
  apply (qcresult_ok_here s c e Phi B Q). apply (denc_ext s e _ _ T).
  intros c0 Hc. symmetry. apply Hp. exact Hc.
Qed.

End Frame.

Arguments QCacheOKC {C}.
Arguments qcresult_ok {C}.
Arguments serves_fromC {C}.
