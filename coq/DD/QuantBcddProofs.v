(** * Soundness of [cquant_rec] (complement-edge kind)

    [cquant_rec_ok]: as for the plain BDD kind
    (DD/QuantProofs.v), with edges carrying complement
    tags, [collect_cofactors] pushing the tag down, and the combination
    [and] / [not (and (not t) (not e))] / [xor] of the two cofactor results.
    [capply_quant_ok], [capply_quant_dispatch_ok], [capply_quant_unique_dispatch_ok]
    (the two dispatch tables, all 8 operators): DD/ApplyQuantBcddProofs.v. *)

From Coq Require Import List NArith PArith Bool Arith Lia FMapPositive.
From OxiVerif Require Import DD.Table DD.TableProofs DD.Canon DD.CanonBcdd DD.Sem DD.Build DD.BuildProofs
  DD.Apply DD.ApplyProofs DD.ApplyBcdd DD.ApplyBcddProofs DD.ApplyBcddIte
  DD.Quant DD.QuantLemmas DD.QuantProofs DD.QuantBcdd DD.QuantBcddLemmas.
Import ListNotations.

Section Q.
Variable lt : edge -> edge -> bool.
Variable C : Type.
Variable cget : C -> N -> list edge -> option edge.
Variable cadd : C -> N -> list edge -> edge -> C.
Hypothesis Hlossy : lossyC cget cadd.
Variable Sg : N -> option (list (nat * edge)).

Notation QOKC := (QCacheOKC cget Sg).
Notation qcres := (qcresult_ok cget Sg).

Lemma cquant_rec_S : forall n s c q f vars,
  cquant_rec lt C cget cadd (S n) s c q f vars =
    match eref f with
    | RT _ =>
      if negb (is_unique q) || is_term vars then Some (s, c, f) else cfalse C s c
    | RN fid =>
      match find_node s fid with
      | None => None
      | Some fnode =>
        let flevel := nstored fnode in
        match (if is_unique q then Some vars else cset_pop (S (nlevels s)) s vars flevel) with
        | None => None
        | Some vars' =>
          match eref vars' with
          | RT _ => Some (s, c, f)
          | RN vid =>
            match find_node s vid with
            | None => None
            | Some vnode =>
              let vlevel := nstored vnode in
              if is_unique q && Nat.ltb vlevel flevel then cfalse C s c
              else
                match cget c (cqcode q) [f; vars'] with
                | Some h => Some (s, c, h)
                | None =>
                  match ccofs (etag f) fnode,
                        (if Nat.eqb vlevel flevel
                         then match nchildren vnode with [vt; _] => Some vt | _ => None end
                         else Some vars') with
                  | Some (ft, fe), Some vt =>
                    match cquant_rec lt C cget cadd n s c q ft vt with
                    | None => None
                    | Some (s1, c1, t) =>
                      match cquant_rec lt C cget cadd n s1 c1 q fe vt with
                      | None => None
                      | Some (s2, c2, e) =>
                        if Nat.eqb flevel vlevel then
                          match ccombine lt C cget cadd s2 c2 q t e with
                          | None => None
                          | Some (s3, c3, res) => Some (s3, cadd c3 (cqcode q) [f; vars'] res, res)
                          end
                        else
                          let '(s3, h) := cmk_node s2 flevel t e in
                          Some (s3, cadd c2 (cqcode q) [f; vars'] h, h)
                      end
                    end
                  | _, _ => None
                  end
                end
            end
          end
        end
      end
    end.
Proof. reflexivity. Qed.

(** the popped variable set, shared by [quant] and [apply_quant] *)
Lemma cpop_ok : forall s q vars L lvl Phi, BcOK s -> ref_ok s (eref vars) -> VChainC s vars L ->
  lvl < nlevels s -> indep Phi lvl ->
  exists vars' L',
    (if is_unique q then Some vars else cset_pop (S (nlevels s)) s vars lvl) = Some vars' /\
    ref_ok s (eref vars') /\ VChainC s vars' L' /\
    (is_unique q = false -> lvl <= rlevel s (eref vars')) /\
    forall c0, bchoice c0 -> qlevs (qf q) L Phi c0 = qlevs (qf q) L' Phi c0.
Proof.
  intros s q vars L lvl Phi B Ov V Hlvl IP. pose proof (bc_wf s B) as H.
  assert (XP : cext Phi) by (apply (cext_indep Phi lvl IP)).
  destruct (is_unique q) eqn:Eq.
  - exists vars, L. split; [reflexivity|]. split; [exact Ov|]. split; [exact V|].
    split; [discriminate | reflexivity].
  - pose proof (rlevel_le s H (eref vars)).
    destruct (cset_pop_ok s B (S (nlevels s)) vars L lvl Ov V ltac:(lia) ltac:(lia))
      as [vars' [L' [E [O' [V' [Hu [pre [EL Hpre]]]]]]]].
    exists vars', L'. split; [exact E|]. split; [exact O'|]. split; [exact V'|].
    split; [intros _; exact Hu|]. intros c0 Hc. rewrite EL, qlevs_app.
    apply qlevs_nodep_idem; [apply qf_idem; exact Eq | apply cext_qlevs; exact XP | | exact Hc].
    intros l Hl. apply nodep_qlevs; [exact XP|]. apply (indep_nodep Phi lvl l IP). apply Hpre. exact Hl.
Qed.

(** the variable set handed to the recursive calls *)
Lemma cvt_ok : forall s vars' vid vnd L' lvl, BcOK s -> eref vars' = RN vid -> find_node s vid = Some vnd ->
  VChainC s vars' L' -> lvl <= nlevel vnd ->
  exists vt' Lr,
    (if Nat.eqb (nlevel vnd) lvl
     then match nchildren vnd with [vt0; _] => Some vt0 | _ => None end
     else Some vars') = Some vt' /\ ref_ok s (eref vt') /\ VChainC s vt' Lr /\ ~ In lvl Lr /\
    (if Nat.eqb lvl (nlevel vnd) then L' = lvl :: Lr else L' = Lr).
Proof.
  intros s vars' vid vnd L' lvl B Er Evn V' Hvl. pose proof (bc_wf s B) as H.
  destruct (vchainc_N_inv s vars' vid vnd L' V' Er Evn) as [vt [ve [L'' [Evch [EL' Vt]]]]].
  pose proof (vchainc_asc s B _ _ V') as Asc. rewrite Er, (rlevel_node s vid vnd Evn), EL' in Asc.
  destruct Asc as [_ Asc].
  rewrite (Nat.eqb_sym lvl (nlevel vnd)). destruct (Nat.eqb_spec (nlevel vnd) lvl) as [Eq|Hne].
  - rewrite Evch. exists vt, L''. split; [reflexivity|].
    split; [apply (children2 s vid vnd vt ve H Evn Evch)|]. split; [exact Vt|].
    split; [apply (asc_notin L'' (S (nlevel vnd)) lvl Asc); lia | rewrite <- Eq; exact EL'].
  - exists vars', L'. split; [reflexivity|]. split; [rewrite Er; exists vnd; exact Evn|]. split; [exact V'|].
    split; [|reflexivity]. rewrite EL'. intros [E|Hin]; [lia|].
    pose proof (asc_ge L'' (S (nlevel vnd)) lvl Asc Hin). lia.
Qed.

Lemma cquant_step : forall q s m vlvl L' Lr Phi code args res0
    (rec1 : snap -> C -> option (snap * C * edge)),
  BcOK s -> m < nlevels s -> indep Phi m -> ~ In m Lr ->
  (if Nat.eqb m vlvl then L' = m :: Lr else L' = Lr) ->
  qcres s res0 (qlevs (qf q) Lr (cofn Phi m 0)) ->
  (forall s1 c1, BcOK s1 -> extends s s1 -> QOKC s1 c1 ->
     qcres s1 (rec1 s1 c1) (qlevs (qf q) Lr (cofn Phi m 1))) ->
  (2 < code)%N ->
  (forall s' r, extends s s' -> DenC s' r (qlevs (qf q) L' Phi) -> cqentry_ok Sg s' code args r) ->
  qcres s
    match res0 with
    | None => None
    | Some (s1, c1, t) =>
      match rec1 s1 c1 with
      | None => None
      | Some (s2, c2, e) =>
        if Nat.eqb m vlvl then
          match ccombine lt C cget cadd s2 c2 q t e with
          | None => None
          | Some (s3, c3, res) => Some (s3, cadd c3 code args res, res)
          end
        else
          let '(s3, h) := cmk_node s2 m t e in
          Some (s3, cadd c2 code args h, h)
      end
    end
    (qlevs (qf q) L' Phi).
Proof.
  intros q s m vlvl L' Lr Phi code args res0 rec1 B Hm IP Hnin HLr R0 R1 Hk Hn.
  assert (XP : cext Phi) by (apply (cext_indep Phi m IP)).
  refine (qcresult_ok_bind C cget Sg s _ _ _ _ R0 _). intros s1 c1 t B1 X1 Q1 D1.
  refine (qcresult_ok_bind C cget Sg s1 _ _ _ _ (R1 s1 c1 B1 X1 Q1) _). intros s2 c2 e B2 X2 Q2 D2.
  pose proof (denc_extends s1 s2 _ _ B1 X2 D1) as D1'.
  assert (X02 : extends s s2) by (eapply extends_trans; eauto).
  assert (Hn2 : forall s' r, extends s2 s' -> DenC s' r (qlevs (qf q) L' Phi) -> cqentry_ok Sg s' code args r)
    by (intros s' r X D'; apply Hn; [eapply extends_trans; eauto | exact D']).
  destruct (Nat.eqb_spec m vlvl) as [Eqv|Hnev].
  - apply (qcresult_ok_cached C cget cadd Hlossy Sg s2 _ _ _ _); [|exact Hk | exact Hn2].
    apply (qcresult_ok_ext C cget Sg s2 _ _ _ (qc_combine lt C cget cadd Hlossy Sg q s2 c2 t e _ _ B2 Q2 D1' D2)).
    intros c0 Hc. rewrite HLr. simpl qlevs. unfold qlev.
    rewrite !cofn_qlevs by (auto; lia). reflexivity.
  - assert (II : forall i, i < 2 -> indep (qlevs (qf q) Lr (cofn Phi m i)) (S m)).
    { intros i Hi. apply indep_qlevs. apply (indep_cofn Phi m m i IP (le_n _) Hi). }
    apply (qcresult_ok_node C cget cadd Hlossy Sg s2 c2 m t e _ _ _ _ _ B2 Q2
             ltac:(rewrite (ext_nlevels _ _ X02); exact Hm) D1' D2 (II 0 ltac:(lia)) (II 1 ltac:(lia)));
      [|exact Hk | exact Hn2].
    intros c0 Hc. rewrite HLr. apply qlevs_shannon; assumption.
Qed.

Theorem cquant_rec_ok : forall q fuel s c f vars phi L,
  BcOK s -> QOKC s c -> DenC s f phi -> ref_ok s (eref vars) -> VChainC s vars L ->
  nlevels s - rlevel s (eref f) < fuel ->
  qcres s (cquant_rec lt C cget cadd fuel s c q f vars) (qlevs (qf q) L phi).
Proof.
  intros q. induction fuel as [|n IH]; intros s c f vars phi L B Q D Ov V Hfuel; [lia|].
  pose proof (bc_wf s B) as H. pose proof (denc_cext s f phi H D) as Xp.
  rewrite cquant_rec_S. destruct (eref f) as [t|fid] eqn:Erf.
  - (* terminal *)
    assert (Hnd : forall l, nodep phi l) by (intros l; apply (denc_term_nodep s f t phi l D Erf)).
    destruct (negb (is_unique q) || is_term vars) eqn:Ec.
    + apply (qcresult_ok_here C cget Sg s c _ _ B Q). apply (denc_ext s f phi _ D).
      intros c0 Hc. apply orb_true_iff in Ec. destruct Ec as [Eq|Ev].
      * symmetry. apply qlevs_nodep_idem; auto. apply qf_idem. destruct (is_unique q); [discriminate | reflexivity].
      * unfold is_term in Ev. destruct (eref vars) as [tv|vid] eqn:Erv; [|discriminate].
        rewrite (vchainc_T_inv s vars tv L V Erv). reflexivity.
    + apply orb_false_iff in Ec. destruct Ec as [Eq Ev]. apply negb_false_iff in Eq.
      unfold is_term in Ev. destruct (eref vars) as [tv|vid] eqn:Erv; [discriminate|].
      destruct Ov as [vnd Evn]. destruct (vchainc_N_inv s vars vid vnd L V Erv Evn) as [vt [ve [L' [_ [-> _]]]]].
      apply (qc_false C cget Sg s c _ B Q). intros c0 Hc. apply (qlevs_unique_nodep q _ L' phi Eq Xp (Hnd _) c0 Hc).
  - (* inner node *)
    pose proof (proj1 D) as Of. rewrite Erf in Of. destruct Of as [fnd Ef]. rewrite Ef. cbv zeta.
    rewrite (wf_stored s H fid fnd Ef).
    rewrite (rlevel_node s fid fnd Ef) in Hfuel.
    destruct (denc_node s f fid fnd phi B D Erf Ef) as [Hlv [Ip [a [b [Ech [Dft [Dfe [Lft Lfe]]]]]]]].
    set (lvl := nlevel fnd) in *.
    destruct (cpop_ok s q vars L lvl phi B Ov V Hlv Ip) as [vars' [L' [Epop [Ov' [V' [Hge HL]]]]]].
    rewrite Epop.
    apply (qcresult_ok_ext C cget Sg s _ (qlevs (qf q) L' phi));
      [|intros c0 Hc; symmetry; apply HL; exact Hc].
    clear HL V Ov L vars Epop.
    destruct (eref vars') as [tv|vid] eqn:Erv.
    { rewrite (vchainc_T_inv s vars' tv L' V' Erv). apply (qcresult_ok_here C cget Sg s c _ _ B Q). exact D. }
    destruct Ov' as [vnd Evn]. rewrite Evn. rewrite (wf_stored s H vid vnd Evn).
    set (vlvl := nlevel vnd) in *.
    destruct (vchainc_N_inv s vars' vid vnd L' V' Erv Evn) as [vt0 [ve0 [L'' [Evch [EL' Vt]]]]].
    destruct (is_unique q && Nat.ltb vlvl lvl) eqn:Eu.
    { apply andb_true_iff in Eu. destruct Eu as [Eq Hlt]. apply Nat.ltb_lt in Hlt.
      apply (qc_false C cget Sg s c _ B Q). intros c0 Hc. rewrite EL'.
      apply (qlevs_unique_nodep q vlvl L'' phi Eq Xp (indep_nodep phi lvl vlvl Ip Hlt) c0 Hc). }
    assert (Hvl : lvl <= vlvl).
    { destruct (is_unique q) eqn:Eq.
      - simpl in Eu. apply Nat.ltb_ge in Eu. exact Eu.
      - specialize (Hge eq_refl). rewrite (rlevel_node s vid vnd Evn) in Hge. exact Hge. }
    clear Eu Hge.
    destruct (cget c (cqcode q) [f; vars']) as [h|] eqn:Ecache.
    { destruct (proj1 (proj2 Q _ _ _ Ecache) q f vars' eq_refl eq_refl) as [phi0 [L0 [D0 [V0 Dh]]]].
      apply (qcresult_ok_here C cget Sg s c _ _ B Q).
      rewrite (vchainc_fun s _ _ _ V0 V') in Dh.
      apply (denc_ext s h _ _ Dh). apply qlevs_ext. apply (denc_unique s _ phi0 phi D0 D). }
    unfold ccofs. rewrite Ech.
    set (ft := retag (etag f) a) in *. set (fe := retag (etag f) b) in *.
    destruct (cvt_ok s vars' vid vnd L' lvl B Erv Evn V' Hvl) as [vt' [Lr [Evt [Ovt [Vr [Hnin HLr]]]]]].
    fold vlvl in Evt, HLr. rewrite Evt.
    apply (cquant_step q s lvl vlvl L' Lr phi (cqcode q) [f; vars'] _
             (fun s1 c1 => cquant_rec lt C cget cadd n s1 c1 q fe vt') B Hlv Ip Hnin HLr).
    + apply (IH s c ft vt' _ Lr B Q Dft Ovt Vr). simpl. lia.
    + intros s1 c1 B1 X1 Q1.
      apply (IH s1 c1 fe vt' _ Lr B1 Q1 (denc_extends s s1 _ _ B X1 Dfe) (ext_ref_ok _ _ _ X1 Ovt)
               (vchainc_extends _ _ _ _ X1 Vr) (fuel_extends s s1 _ n X1 (proj1 Dfe) ltac:(simpl; lia))).
    + destruct q; simpl; lia.
    + intros s' r X' D'.
      apply (cqentry_quant Sg s' q f vars' r phi L');
        [apply (denc_extends s s' _ _ B X' D) | apply (vchainc_extends _ _ _ _ X' V') | exact D'].
Qed.

End Q.
