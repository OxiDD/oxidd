(** * The complement-edge quantification / restriction / substitution
      algorithms against the spec layer (DD/Sem.v)

    [cube_chainC] (an edge that denotes a cube of literals has that cube as
    the literal chain [restrict]'s polarity-tracking walk reads), the bridges
    to variable-indexed assignments, and the entry-point theorems in terms of
    [cbfun_of]: [cquant_edge_sound], [capply_quant_edge_sound],
    [crestrict_edge_sound], [csubstitute_edge_sound]. *)

From Coq Require Import List NArith PArith Bool Arith Lia FMapPositive Permutation.
From OxiVerif Require Import DD.Table DD.TableProofs DD.Canon DD.CanonBcdd DD.Sem DD.Build DD.BuildProofs
  DD.Apply DD.ApplyProofs DD.ApplyEvalProofs DD.ApplyBcdd DD.ApplyBcddProofs DD.ApplyBcddIte DD.ApplyBcddEval
  DD.Quant DD.QuantSpecProofs DD.QuantLemmas DD.QuantProofs DD.QuantTopProofs
  DD.QuantBcdd DD.QuantBcddLemmas DD.QuantBcddProofs DD.ApplyQuantBcddProofs DD.RestrictBcddProofs
  DD.SubstBcddProofs.
Import ListNotations.

(** the then-edge of a stored node is not complemented *)
Lemma bc_then_untagged : forall s id nd t x, BcOK s -> find_node s id = Some nd -> nchildren nd = [t; x] ->
  etag t = false.
Proof.
  intros s id nd t x B En Ech.
  destruct (reduced_bcdd s (bc_kind s B) _ (wf_reduced s (bc_wf s B) id nd En)) as [_ [t' [Eh Et]]].
  rewrite Ech in Eh. simpl in Eh. inversion Eh; subst. exact Et.
Qed.

(** a cube that is constant true has no literal *)
Lemma cubeL_true_nil : forall M, NoDup (map fst M) ->
  (forall c, bchoice c -> cubeL M c = true) -> M = [].
Proof.
  intros [|[l b] rest] Hnd Ht; [reflexivity|]. exfalso.
  destruct (cube_flip ((l, b) :: rest) l b Hnd (or_introl eq_refl)) as [_ [Hc2 [_ [F _]]]].
  rewrite (Ht _ Hc2) in F. discriminate.
Qed.

Theorem cube_chainC : forall s, BcOK s -> forall n r neg M0,
  nlevels s - rlevel s r < n -> DenC s (mkEdge r neg) (cubeL M0) -> NoDup (map fst M0) ->
  (forall p, In p M0 -> fst p < nlevels s) ->
  exists M, LChainC s r neg M /\ Permutation M M0.
Proof.
  intros s B. pose proof (bc_wf s B) as H.
  induction n as [|n IH]; intros r neg M0 Hn D Hnd Hlt; [lia|].
  destruct r as [t|id].
  - destruct M0 as [|[l b] rest]; [exists []; split; constructor|]. exfalso.
    destruct (cube_flip ((l, b) :: rest) l b Hnd (or_introl eq_refl)) as [Hc1 [Hc2 [T [F _]]]].
    rewrite (denc_term_const s _ t _ _ _ D eq_refl Hc1 Hc2) in T. congruence.
  - pose proof (proj1 D) as Ok. simpl in Ok. destruct Ok as [nd En].
    rewrite (rlevel_node s id nd En) in Hn.
    destruct (denc_node s _ id nd _ B D eq_refl En) as [Hlv [Ip [t [x [Ech [Dt [Dx [Lt Lx]]]]]]]].
    simpl etag in Dt, Dx. unfold retag in Dt, Dx.
    set (lvl := nlevel nd) in *.
    assert (Hdep : ~ indep (cubeL M0) (S lvl)).
    { intros I'. pose proof (denc_level s _ _ (S lvl) B D ltac:(lia) I') as Hl.
      simpl eref in Hl. rewrite (rlevel_node s id nd En) in Hl. fold lvl in Hl. lia. }
    destruct (cube_root M0 lvl Hnd Ip Hdep) as [b [M0' [P0 [Hnd0 [Hsame Hother]]]]].
    assert (Hlt' : forall p, In p M0' -> fst p < nlevels s).
    { intros p Hp. apply Hlt. apply (Permutation_in _ (Permutation_sym P0)). right. exact Hp. }
    pose proof (bc_then_untagged s id nd t x B En Ech) as Tt.
    (* the satisfying choice of the rest of the cube *)
    pose proof (cubeL_sat M0' Hnd0) as Sat. pose proof (csat_bchoice M0') as Hsat.
    destruct (eref t) as [tt|tid] eqn:Et.
    + (* the then-edge points to the terminal *)
      rewrite Tt, xorb_false_r in Dt.
      pose proof (denc_term s _ tt _ Dt eq_refl) as Ct. simpl in Ct.
      destruct neg.
      * (* the then-cofactor is false: negative literal *)
        destruct b.
        { exfalso. simpl lit_ix in Hsame. specialize (Ct _ Hsat). rewrite Hsame, Sat in Ct. discriminate. }
        assert (Dx' : DenC s (mkEdge (eref x) (xorb true (etag x))) (cubeL M0'))
          by (apply (denc_ext s _ _ _ Dx); intros c _; apply (Hsame c)).
        simpl xorb in Dx'.
        destruct (IH (eref x) (negb (etag x)) M0' ltac:(lia) Dx' Hnd0 Hlt') as [M1 [V1 P1]].
        exists ((lvl, false) :: M1). split; [eapply LCC_neg; eauto|].
        eapply Permutation_trans; [apply perm_skip; exact P1 | symmetry; exact P0].
      * (* the then-cofactor is true: the last literal, positive *)
        destruct b.
        2:{ exfalso. specialize (Ct _ Hsat). simpl lit_ix in Hother. simpl in Hother.
            rewrite (Hother (csat M0')) in Ct. discriminate. }
        assert (Enil : M0' = []).
        { apply cubeL_true_nil; [exact Hnd0|]. intros c Hc. rewrite <- Hsame. apply (Ct c Hc). }
        exists [(lvl, true)]. split; [eapply LCC_pos_last; eauto|].
        rewrite Enil in P0. symmetry. exact P0.
    + (* the then-edge points to a node: positive literal *)
      destruct b.
      2:{ exfalso.
          assert (Dt' : DenC s (mkEdge (RN tid) (xorb neg (etag t))) (fun _ => false))
            by (apply (denc_ext s _ _ _ Dt); intros c _; apply (Hother c)).
          destruct (cget_terminal_den s false B) as [e0 [E0 D0]].
          pose proof (denc_canon s _ _ _ B Dt' D0) as Ee.
          unfold cget_terminal in E0. destruct (bc_term_id s); inversion E0; subst e0. discriminate. }
      assert (Dt' : DenC s (mkEdge (RN tid) (xorb neg (etag t))) (cubeL M0'))
        by (apply (denc_ext s _ _ _ Dt); intros c _; apply (Hsame c)).
      destruct (IH (RN tid) (xorb neg (etag t)) M0' ltac:(lia) Dt' Hnd0 Hlt') as [M1 [V1 P1]].
      exists ((lvl, true) :: M1). split; [eapply LCC_pos; eauto|].
      eapply Permutation_trans; [apply perm_skip; exact P1 | symmetry; exact P0].
Qed.

(** a cube of positive literals read as a variable set *)
Lemma lchainc_vchainc : forall s r neg M, LChainC s r neg M -> (forall p, In p M -> snd p = true) ->
  forall e, eref e = r -> VChainC s e (map fst M).
Proof.
  intros s r neg M V.
  induction V as [t neg|id neg nd t x tid M En Ech Et V IH|id nd t x tt En Ech Et
                  |id nd t x tt M En Ech Et V IH]; intros Hp e Er.
  - eapply VCC_T; eauto.
  - simpl. eapply VCC_N; eauto. apply IH; [|exact Et]. intros p Hin. apply Hp. right. exact Hin.
  - simpl. eapply VCC_N; eauto. eapply VCC_T; eauto.
  - specialize (Hp (nlevel nd, false) (or_introl eq_refl)). discriminate.
Qed.

Lemma lchainc_lt : forall s r neg M p, BcOK s -> LChainC s r neg M -> In p M -> fst p < nlevels s.
Proof.
  intros s r neg M p B V.
  induction V as [t neg|id neg nd t x tid M En Ech Et V IH|id nd t x tt En Ech Et
                  |id nd t x tt M En Ech Et V IH]; intros Hin; [destruct Hin| | |];
    (destruct Hin as [<-|Hin]; [simpl; apply (wf_level s (bc_wf s B) id nd En) | auto]).
  destruct Hin.
Qed.

Section PermC.
Variable s : snap.
Hypothesis B : BcOK s.

Lemma semc_ext_lt : forall f e c c', (forall l, l < nlevels s -> c l = c' l) ->
  semc s f e c = semc s f e c'.
Proof.
  pose proof (bc_wf s B) as H.
  induction f as [|f IH]; intros e c c' E.
  - destruct (eref e) as [t|id] eqn:Er; [rewrite !(semc_T _ _ _ _ t Er); reflexivity|].
    rewrite !(semc_O _ _ _ id Er). reflexivity.
  - destruct (eref e) as [t|id] eqn:Er; [rewrite !(semc_T _ _ _ _ t Er); reflexivity|].
    rewrite !(semc_S _ _ _ _ id Er). destruct (find_node s id) as [nd|] eqn:En; [|reflexivity].
    rewrite <- (E (nlevel nd) (wf_level s H id nd En)).
    destruct (nth_error (nchildren nd) (c (nlevel nd))) as [e'|]; [|reflexivity].
    rewrite (IH e' c c' E). reflexivity.
Qed.

Lemma denc_lt : forall e phi c c', DenC s e phi -> bchoice c -> bchoice c' ->
  (forall l, l < nlevels s -> c l = c' l) -> phi c = phi c'.
Proof.
  intros e phi c c' [_ D] Hc Hc' E.
  pose proof (D c Hc) as A. pose proof (D c' Hc') as A'.
  rewrite (semc_ext_lt _ e c c' E) in A. congruence.
Qed.

Lemma denc_bfun : forall e phi c, DenC s e phi -> bchoice c -> phi c = cbfun_of s e (asg_of s c).
Proof.
  intros e phi c D Hc. rewrite (cbfun_of_den s e phi D).
  apply (denc_lt e phi _ _ D Hc (choice_of_bchoice s _)).
  intros l Hl. symmetry. apply (choice_of_asg_of s (bc_wf s B)); assumption.
Qed.

Lemma aext_cbfun_of : forall e, aext (cbfun_of s e).
Proof.
  intros e a a' E. unfold cbfun_of.
  rewrite (semc_ext s (bc_wf s B) _ e _ _ (fun l _ => choice_of_aeq s a a' E l)). reflexivity.
Qed.

Lemma psubstC_bridge : forall phi pairs, cext phi ->
  forall a, psubstC s pairs phi (choice_of s a) =
            subst_s (map (fun p => (fst p, cbfun_of s (snd p))) pairs) (fun a0 => phi (choice_of s a0)) a.
Proof.
  intros phi pairs X a. unfold psubstC, subst_s.
  apply X; [apply pschC_bchoice; apply choice_of_bchoice | apply choice_of_bchoice|].
  intros l. unfold pschC, choice_of. destruct (nth_error (s_l2v s) l) as [v|]; [|reflexivity].
  rewrite (assoc_nat_map _ _ (cbfun_of s) pairs v).
  destruct (assoc_nat pairs v) as [r|]; reflexivity.
Qed.

End PermC.

(** ** What the caller passes *)

Definition is_varsetC (s : snap) (vars : edge) (vs : list nat) : Prop :=
  forall a, cbfun_of s vars a = forallb (fun v => a v) vs.

Definition is_cubeC (s : snap) (vars : edge) (lits : list (nat * bool)) : Prop :=
  forall a, cbfun_of s vars a = forallb (fun p : nat * bool => Bool.eqb (a (fst p)) (snd p)) lits.

Lemma cube_lchainC : forall s vars lits, BcOK s -> ref_ok s (eref vars) -> is_cubeC s vars lits ->
  NoDup (map fst lits) -> (forall p, In p lits -> fst p < nlevels s) ->
  exists M, LChainC s (eref vars) (etag vars) M /\
            Permutation M (map (fun p : nat * bool => (lv s (fst p), snd p)) lits).
Proof.
  intros s vars lits B Ov Hc Hnd Hlt. pose proof (bc_wf s B) as H.
  destruct (denc_exists s vars B Ov) as [phi0 D0].
  destruct (lits_levels s H lits Hnd Hlt) as [Hnd0 Hlt0].
  pose proof (rlevel_le s H (eref vars)).
  apply (cube_chainC s B (S (nlevels s)) (eref vars) (etag vars) _ ltac:(lia)); [|exact Hnd0 | exact Hlt0].
  rewrite edge_eta. apply (denc_ext s vars phi0 _ D0). intros c Hc0.
  rewrite (denc_bfun s B vars phi0 c D0 Hc0), Hc. symmetry. apply (cubeL_lits s lits c Hc0).
Qed.

Lemma varset_chainC : forall s vars vs, BcOK s -> ref_ok s (eref vars) -> is_varsetC s vars vs ->
  (forall v, In v vs -> v < nlevels s) ->
  exists L, VChainC s vars L /\ (forall l, In l L -> l < nlevels s) /\
            Permutation (map (vl s) L) (nodup Nat.eq_dec vs).
Proof.
  intros s vars vs B Ov Hvs Hlt.
  destruct (varset_lits s vs (bc_wf s B) Hlt) as [Ef [Hnd [Hl HM]]].
  destruct (cube_lchainC s vars _ B Ov (fun a => eq_trans (Hvs a) (Ef a)) Hnd Hl) as [M [V P]].
  destruct (HM M P) as [Hpos PL].
  pose proof (lchainc_vchainc s _ _ M V Hpos vars eq_refl) as VL.
  exists (map fst M). split; [exact VL|]. split; [exact (fun l => vchainc_lt s B vars _ l VL) | exact PL].
Qed.

Lemma cqlevs_quant : forall s q vars vs L phi F, BcOK s -> ref_ok s (eref vars) -> is_varsetC s vars vs ->
  (forall v, In v vs -> v < nlevels s) -> (q = QUnique -> NoDup vs) ->
  VChainC s vars L -> cext phi -> aext F -> (forall a, F a = phi (choice_of s a)) ->
  forall a, qlevs (qf q) L phi (choice_of s a) = quant (qfun q) vs F a.
Proof.
  intros s q vars vs L phi F B Ov Hvs Hlt Hu V X XF EF.
  destruct (varset_chainC s vars vs B Ov Hvs Hlt) as [L' [V' [HL P]]].
  rewrite (vchainc_fun s _ _ _ V V'). apply (qlevs_quant_perm s q vs L' phi F (bc_wf s B) HL P Hu X XF EF).
Qed.

Section TopC.
Variable lt : edge -> edge -> bool.
Variable C : Type.
Variable cget : C -> N -> list edge -> option edge.
Variable cadd : C -> N -> list edge -> edge -> C.
Hypothesis Hlossy : lossyC cget cadd.
Variable Sg : N -> option (list (nat * edge)).

Notation QOKC := (QCacheOKC cget Sg).

Lemma qcresult_ok_bfun : forall s res Phi, qcresult_ok cget Sg s res Phi ->
  exists s' c' r, res = Some (s', c', r) /\ BcOK s' /\ extends s s' /\ QOKC s' c' /\ ref_ok s' (eref r) /\
    forall a, cbfun_of s' r a = Phi (choice_of s a).
Proof.
  intros s res Phi [s' [c' [r [E [B' [X [Q' D']]]]]]]. exists s', c', r. repeat (split; [assumption|]).
  split; [apply (proj1 D')|]. intros a.
  rewrite (cbfun_of_den s' r _ D'). unfold choice_of. rewrite (ext_l2v _ _ X). reflexivity.
Qed.

(** exists / forall / unique *)
Theorem cquant_edge_sound : forall q s c f vars,
  BcOK s -> QOKC s c -> ref_ok s (eref f) -> ref_ok s (eref vars) ->
  exists s' c' r, cquant_edge lt C cget cadd s c q f vars = Some (s', c', r) /\
    BcOK s' /\ extends s s' /\ QOKC s' c' /\ ref_ok s' (eref r) /\
    forall vs, (forall v, In v vs -> v < nlevels s) -> is_varsetC s vars vs -> (q = QUnique -> NoDup vs) ->
    forall a, cbfun_of s' r a = quant (qfun q) vs (cbfun_of s f) a.
Proof.
  intros q s c f vars B Q Of Ov. pose proof (bc_wf s B) as H.
  destruct (denc_exists s f B Of) as [phi D]. destruct (vchainc_total s B vars Ov) as [L V].
  pose proof (rlevel_le s H (eref f)).
  destruct (qcresult_ok_bfun s _ _
              (cquant_rec_ok lt C cget cadd Hlossy Sg q (S (nlevels s)) s c f vars phi L B Q D Ov V ltac:(lia)))
    as [s' [c' [r [E [B' [X [Q' [O' S]]]]]]]].
  exists s', c', r. repeat (split; [assumption|]). intros vs Hlt Hvs Hu a. rewrite S.
  apply (cqlevs_quant s q vars vs L phi (cbfun_of s f) B Ov Hvs Hlt Hu V (denc_cext s f phi H D)
           (aext_cbfun_of s B f) (cbfun_of_den s f phi D)).
Qed.

(** apply_forall / apply_exists / apply_unique through the dispatch tables *)
Theorem capply_quant_edge_sound : forall q op s c f g vars,
  BcOK s -> QOKC s c -> ref_ok s (eref f) -> ref_ok s (eref g) -> ref_ok s (eref vars) ->
  exists s' c' r, capply_quant_edge lt C cget cadd s c q op f g vars = Some (s', c', r) /\
    BcOK s' /\ extends s s' /\ QOKC s' c' /\ ref_ok s' (eref r) /\
    forall vs, (forall v, In v vs -> v < nlevels s) -> is_varsetC s vars vs -> (q = QUnique -> NoDup vs) ->
    forall a, cbfun_of s' r a = quant (qfun q) vs (lift2 op (cbfun_of s f) (cbfun_of s g)) a.
Proof.
  intros q op s c f g vars B Q Of Og Ov. pose proof (bc_wf s B) as H.
  destruct (denc_exists s f B Of) as [phi Df]. destruct (denc_exists s g B Og) as [psi Dg].
  destruct (vchainc_total s B vars Ov) as [L V].
  destruct (qcresult_ok_bfun s _ _
              (capply_quant_edge_ok lt C cget cadd Hlossy Sg q op s c f g vars phi psi L B Q Df Dg Ov V))
    as [s' [c' [r [E [B' [X [Q' [O' S]]]]]]]].
  exists s', c', r. repeat (split; [assumption|]). intros vs Hlt Hvs Hu a. rewrite S.
  apply (cqlevs_quant s q vars vs L _ (lift2 op (cbfun_of s f) (cbfun_of s g)) B Ov Hvs Hlt Hu V).
  - apply (cext_bin _ phi psi (denc_cext s f phi H Df) (denc_cext s g psi H Dg)).
  - apply aext_lift2; apply (aext_cbfun_of s B).
  - intros a0. unfold lift2. rewrite (cbfun_of_den s f phi Df), (cbfun_of_den s g psi Dg). reflexivity.
Qed.

(** restrict *)
Theorem crestrict_edge_sound : forall s c f vars,
  BcOK s -> QOKC s c -> ref_ok s (eref f) -> ref_ok s (eref vars) ->
  exists s' c' r, crestrict_edge C cget cadd s c f vars = Some (s', c', r) /\
    BcOK s' /\ extends s s' /\ QOKC s' c' /\ ref_ok s' (eref r) /\
    forall lits, NoDup (map fst lits) -> (forall p, In p lits -> fst p < nlevels s) -> is_cubeC s vars lits ->
    forall a, cbfun_of s' r a = restrict_s lits (cbfun_of s f) a.
Proof.
  intros s c f vars B Q Of Ov. pose proof (bc_wf s B) as H.
  destruct (denc_exists s f B Of) as [phi D].
  destruct (lchainc_total s B (eref vars) (etag vars) Ov) as [M V].
  pose proof (rlevel_le s H (eref f)).
  destruct (qcresult_ok_bfun s _ _
              (crestrict_ok C cget cadd Hlossy Sg (S (nlevels s)) s c f vars phi M B Q D Ov V ltac:(lia)))
    as [s' [c' [r [E [B' [X [Q' [O' S]]]]]]]].
  exists s', c', r. repeat (split; [assumption|]). intros lits Hnd Hlt Hc a. rewrite S.
  destruct (cube_lchainC s vars lits B Ov Hc Hnd Hlt) as [M1 [V1 P]].
  rewrite (lchainc_fun s _ _ _ _ V1 V) in P.
  apply (restr_restrict_s s H phi (cbfun_of s f) M lits (denc_cext s f phi H D) (aext_cbfun_of s B f)
           (cbfun_of_den s f phi D) (fun p Hp => lchainc_lt s _ _ M p B V Hp) P Hnd Hlt).
Qed.

(** substitute *)
Theorem csubstitute_edge_sound : forall s c f pairs id,
  BcOK s -> QOKC s c -> ref_ok s (eref f) -> NoDup (map fst pairs) ->
  (forall v r, In (v, r) pairs -> v < nlevels s /\ ref_ok s (eref r)) -> Sg id = Some pairs ->
  exists s' c' r, csubstitute_edge lt C cget cadd s c f pairs id = Some (s', c', r) /\
    BcOK s' /\ extends s s' /\ QOKC s' c' /\ ref_ok s' (eref r) /\
    forall a, cbfun_of s' r a =
              subst_s (map (fun p => (fst p, cbfun_of s (snd p))) pairs) (cbfun_of s f) a.
Proof.
  intros s c f pairs id B Q Of Hnd Hp Es. pose proof (bc_wf s B) as H.
  destruct (denc_exists s f B Of) as [phi D].
  destruct (qcresult_ok_bfun s _ _
              (csubstitute_edge_ok lt C cget cadd Hlossy Sg s c f pairs id phi B Q D Hnd Hp Es))
    as [s' [c' [r [E [B' [X [Q' [O' S]]]]]]]].
  exists s', c', r. repeat (split; [assumption|]). intros a. rewrite S.
  rewrite (psubstC_bridge s phi pairs (denc_cext s f phi H D) a).
  apply subst_s_ext. intros a0. symmetry. apply (cbfun_of_den s f phi D).
Qed.

End TopC.
