(** * Histories of quantification / restriction / substitution operations

    A state = node table + apply cache + the registry of substitution objects
    with the id counter ([new_substitution_id]).  Operations: the three
    quantifiers, the fused forms, restrict, substitute with a registered
    object, creation of a new substitution object (fresh id), clearing the
    cache (what gc / reordering do to it; the table itself is not changed by
    this model of "clear").

    [qstep_ok]: from every state satisfying the invariant [QInv], every
    operation whose operands exist runs to completion, re-establishes the
    invariant, only extends the table, and returns a reference denoting the
    spec function of its operands - so in every history, one substitution
    object can be applied any number of times and several objects in any
    interleaving ([qrun_ok]). *)

From Coq Require Import List NArith PArith Bool Arith Lia FMapPositive.
From OxiVerif Require Import DD.Table DD.TableProofs DD.Canon DD.Sem DD.Build DD.BuildProofs
  DD.Apply DD.ApplyProofs DD.ApplyEvalProofs DD.Quant DD.QuantSpecProofs DD.QuantLemmas
  DD.QuantProofs DD.RestrictProofs DD.SubstProofs DD.ApplyQuantProofs DD.QuantTopProofs.
Import ListNotations.

Definition pairs_t := list (nat * ref).

(** the registry as a function: id |-> object *)
Fixpoint reg_fn (reg : list (N * pairs_t)) (id : N) : option pairs_t :=
  match reg with
  | [] => None
  | (i, p) :: r => if N.eqb id i then Some p else reg_fn r id
  end.

Section Hist.
Variable gt : ref -> ref -> bool.
Variable C : Type.
Variable cget : C -> N -> list ref -> option ref.
Variable cadd : C -> N -> list ref -> ref -> C.
Hypothesis Hlossy : lossy cget cadd.
(** the cleared cache *)
Variable cempty : C.
Hypothesis Hempty : forall k a, cget cempty k a = None.

Record qstate := mkQ { q_s : snap; q_c : C; q_reg : list (N * pairs_t); q_next : N }.

Inductive qop :=
| QOQuant (q : quantifier) (f vars : ref)
| QOApplyQuant (q : quantifier) (o : bop) (f g vars : ref)
| QORestrict (f vars : ref)
| QOSubst (f : ref) (id : N)
| QONewSubst (pairs : pairs_t)
| QOClear.

Definition with_res (st : qstate) (res : option (snap * C * ref)) : option (qstate * option ref) :=
  match res with
  | Some (s', c', r) => Some (mkQ s' c' (q_reg st) (q_next st), Some r)
  | None => None
  end.

Definition qstep (st : qstate) (o : qop) : option (qstate * option ref) :=
  match o with
  | QOQuant q f vars => with_res st (quant_edge gt C cget cadd (q_s st) (q_c st) q f vars)
  | QOApplyQuant q op f g vars =>
    with_res st (apply_quant_edge gt C cget cadd (q_s st) (q_c st) q op f g vars)
  | QORestrict f vars => with_res st (restrict_edge C cget cadd (q_s st) (q_c st) f vars)
  | QOSubst f id =>
    match reg_fn (q_reg st) id with
    | Some pairs => with_res st (substitute_edge gt C cget cadd (q_s st) (q_c st) f pairs id)
    | None => None
    end
  | QONewSubst pairs =>
    Some (mkQ (q_s st) (q_c st) ((q_next st, pairs) :: q_reg st) (N.succ (q_next st)), None)
  | QOClear => Some (mkQ (q_s st) cempty (q_reg st) (q_next st), None)
  end.

Definition pairs_wf (s : snap) (pairs : pairs_t) : Prop :=
  NoDup (map fst pairs) /\ forall v r, In (v, r) pairs -> v < nlevels s /\ ref_ok s r.

Record QInv (st : qstate) : Prop := mkQInv {
  qi_bdd : BddOK (q_s st);
  qi_cache : QCacheOK cget (reg_fn (q_reg st)) (q_s st) (q_c st);
  qi_reg : forall id pairs, reg_fn (q_reg st) id = Some pairs -> pairs_wf (q_s st) pairs;
  qi_fresh : forall id, (q_next st <= id)%N -> reg_fn (q_reg st) id = None
}.

(** the operands exist *)
Definition op_pre (st : qstate) (o : qop) : Prop :=
  match o with
  | QOQuant _ f vars => ref_ok (q_s st) f /\ ref_ok (q_s st) vars
  | QOApplyQuant _ _ f g vars => ref_ok (q_s st) f /\ ref_ok (q_s st) g /\ ref_ok (q_s st) vars
  | QORestrict f vars => ref_ok (q_s st) f /\ ref_ok (q_s st) vars
  | QOSubst f id => ref_ok (q_s st) f /\ exists pairs, reg_fn (q_reg st) id = Some pairs
  | QONewSubst pairs => pairs_wf (q_s st) pairs
  | QOClear => True
  end.

(** what the operation returns, in terms of the spec layer *)
Definition op_post (st : qstate) (o : qop) (st' : qstate) (res : option ref) : Prop :=
  let s := q_s st in let s' := q_s st' in
  match o with
  | QOQuant q f vars =>
    exists r, res = Some r /\ ref_ok s' r /\
    forall vs, (forall v, In v vs -> v < nlevels s) -> is_varset s vars vs -> (q = QUnique -> NoDup vs) ->
    forall a, bfun_of s' r a = quant (qfun q) vs (bfun_of s f) a
  | QOApplyQuant q op f g vars =>
    exists r, res = Some r /\ ref_ok s' r /\
    forall vs, (forall v, In v vs -> v < nlevels s) -> is_varset s vars vs -> (q = QUnique -> NoDup vs) ->
    forall a, bfun_of s' r a = quant (qfun q) vs (lift2 op (bfun_of s f) (bfun_of s g)) a
  | QORestrict f vars =>
    exists r, res = Some r /\ ref_ok s' r /\
    forall lits, NoDup (map fst lits) -> (forall p, In p lits -> fst p < nlevels s) -> is_cube s vars lits ->
    forall a, bfun_of s' r a = restrict_s lits (bfun_of s f) a
  | QOSubst f id =>
    exists r pairs, res = Some r /\ ref_ok s' r /\ reg_fn (q_reg st) id = Some pairs /\
    forall a, bfun_of s' r a = subst_s (map (fun p => (fst p, bfun_of s (snd p))) pairs) (bfun_of s f) a
  | QONewSubst pairs =>
    res = None /\ reg_fn (q_reg st') (q_next st) = Some pairs /\ q_next st' = N.succ (q_next st)
  | QOClear => res = None
  end.

Lemma pairs_wf_extends : forall s s' pairs, extends s s' -> pairs_wf s pairs -> pairs_wf s' pairs.
Proof.
  intros s s' pairs X [Hnd Hp]. split; [exact Hnd|]. intros v r Hin.
  destruct (Hp v r Hin) as [A B]. split; [rewrite (ext_nlevels _ _ X); exact A | apply (ext_ref_ok _ _ _ X B)].
Qed.

(** a result of one of the algorithms re-establishes the invariant *)
Lemma inv_with_res : forall st s' c', QInv st -> BddOK s' -> extends (q_s st) s' ->
  QCacheOK cget (reg_fn (q_reg st)) s' c' -> QInv (mkQ s' c' (q_reg st) (q_next st)).
Proof.
  intros st s' c' I B' X Q'. constructor; simpl; [exact B' | exact Q' | | apply (qi_fresh st I)].
  intros id pairs E. apply (pairs_wf_extends (q_s st) s' pairs X). apply (qi_reg st I id pairs E).
Qed.

Lemma step_with_res : forall st res (P : snap -> ref -> Prop), QInv st ->
  (exists s' c' r, res = Some (s', c', r) /\ BddOK s' /\ extends (q_s st) s' /\
     QCacheOK cget (reg_fn (q_reg st)) s' c' /\ ref_ok s' r /\ P s' r) ->
  exists st' out, with_res st res = Some (st', out) /\ QInv st' /\ extends (q_s st) (q_s st') /\
    exists r, out = Some r /\ ref_ok (q_s st') r /\ P (q_s st') r.
Proof.
  intros st res P I [s' [c' [r [-> [B' [X [Q' [Or S]]]]]]]].
  eexists; eexists. split; [reflexivity|]. split; [apply (inv_with_res st s' c' I B' X Q')|].
  split; [exact X|]. exists r. split; [reflexivity|]. split; [exact Or | exact S].
Qed.

Theorem qstep_ok : forall st o, QInv st -> op_pre st o ->
  exists st' res, qstep st o = Some (st', res) /\ QInv st' /\ extends (q_s st) (q_s st') /\
                  op_post st o st' res.
Proof.
  intros st o I Pre. pose proof (qi_bdd st I) as B. pose proof (qi_cache st I) as Q.
  destruct o as [q f vars|q op f g vars|f vars|f id|pairs|]; simpl in Pre; simpl qstep.
  - destruct Pre as [Of Ov].
    exact (step_with_res st _ _ I
             (quant_edge_total gt C cget cadd Hlossy _ q (q_s st) (q_c st) f vars B Q Of Ov)).
  - destruct Pre as [Of [Og Ov]].
    exact (step_with_res st _ _ I
             (apply_quant_edge_total gt C cget cadd Hlossy _ q op (q_s st) (q_c st) f g vars B Q Of Og Ov)).
  - destruct Pre as [Of Ov].
    exact (step_with_res st _ _ I
             (restrict_edge_total C cget cadd Hlossy _ (q_s st) (q_c st) f vars B Q Of Ov)).
  - destruct Pre as [Of [pairs Er]]. rewrite Er.
    destruct (qi_reg st I id pairs Er) as [Hnd Hp].
    destruct (step_with_res st _ _ I
                (substitute_edge_sound gt C cget cadd Hlossy _ (q_s st) (q_c st) f pairs id B Q Of Hnd Hp Er))
      as [st' [out [E [I' [X [r [-> [Or S]]]]]]]].
    exists st', (Some r). repeat (split; [assumption|]). exists r, pairs. auto.
  - eexists; eexists. split; [reflexivity|]. simpl.
    assert (Hfresh : reg_fn (q_reg st) (q_next st) = None) by (apply (qi_fresh st I); lia).
    split; [|split; [apply extends_refl|]].
    + constructor; simpl.
      * exact B.
      * apply (qcacheok_register C cget (reg_fn (q_reg st)) (q_s st) (q_c st) (q_next st) pairs Q Hfresh).
      * intros id p. destruct (N.eqb_spec id (q_next st)) as [->|Hne].
        -- intros E. inversion E; subst. exact Pre.
        -- apply (qi_reg st I id p).
      * intros id Hid. destruct (N.eqb_spec id (q_next st)) as [->|Hne]; [lia|].
        apply (qi_fresh st I). lia.
    + split; [reflexivity|]. split; [rewrite N.eqb_refl; reflexivity | reflexivity].
  - eexists; eexists. split; [reflexivity|]. simpl.
    split; [|split; [apply extends_refl | reflexivity]].
    constructor; simpl; [exact B | | apply (qi_reg st I) | apply (qi_fresh st I)].
    split; [intros code args r E; rewrite Hempty in E; discriminate|].
    intros code args r E. rewrite Hempty in E. discriminate.
Qed.

(** ** Whole histories *)

Fixpoint qrun (st : qstate) (ops : list qop) : option (qstate * list (option ref)) :=
  match ops with
  | [] => Some (st, [])
  | o :: rest =>
    match qstep st o with
    | None => None
    | Some (st1, r) =>
      match qrun st1 rest with
      | Some (st2, rs) => Some (st2, r :: rs)
      | None => None
      end
    end
  end.

(** every operation's operands exist when it is its turn *)
Fixpoint ops_pre (st : qstate) (ops : list qop) : Prop :=
  match ops with
  | [] => True
  | o :: rest => op_pre st o /\ forall st1 r, qstep st o = Some (st1, r) -> ops_pre st1 rest
  end.

(** the states and results of a run, operation by operation *)
Fixpoint run_post (st : qstate) (ops : list qop) (rs : list (option ref)) : Prop :=
  match ops, rs with
  | [], [] => True
  | o :: rest, r :: rs' => exists st1, qstep st o = Some (st1, r) /\ op_post st o st1 r /\ run_post st1 rest rs'
  | _, _ => False
  end.

Theorem qrun_ok : forall ops st, QInv st -> ops_pre st ops ->
  exists st' rs, qrun st ops = Some (st', rs) /\ QInv st' /\ extends (q_s st) (q_s st') /\
                 run_post st ops rs.
Proof.
  induction ops as [|o rest IH]; intros st I Pre.
  - exists st, []. split; [reflexivity|]. split; [exact I|]. split; [apply extends_refl | exact Logic.I].
  - destruct Pre as [P0 Prest].
    destruct (qstep_ok st o I P0) as [st1 [r [E [I1 [X1 Post]]]]].
    destruct (IH st1 I1 (Prest st1 r E)) as [st2 [rs [E2 [I2 [X2 Posts]]]]].
    exists st2, (r :: rs). simpl. rewrite E, E2. split; [reflexivity|]. split; [exact I2|].
    split; [eapply extends_trans; eauto|]. exists st1. auto.
Qed.

End Hist.

(** the initial state: any BddOK table, cleared cache, no substitution object *)
Theorem qinv_init : forall C (cget : C -> N -> list ref -> option ref) cempty s,
  (forall k a, cget cempty k a = None) -> BddOK s -> QInv C cget (mkQ C s cempty [] 0%N).
Proof.
  intros C cget cempty s Hempty B. constructor; simpl; [exact B | | discriminate | reflexivity].
  split; intros code args r E; rewrite Hempty in E; discriminate.
Qed.
