(** * Infrastructure for the proofs about DD/Quant.v

    - choice-level (= level-indexed) versions of the spec functions:
      [qlevs] (iterated quantification over a list of levels), [restr]
      (cofactor w.r.t. a list of level literals), [csubst] (simultaneous
      substitution of levels by references), with congruence / commutation /
      independence lemmas;
    - [VChain s vars L]: the levels met along the then-children of [vars]
      (what [set_pop] / [quant] / [apply_quant] read of a variable set);
      [LChain s vars M]: the literals [restrict::inner] reads of a cube;
    - frame lemmas: [apply_not] / [apply_bin] / [apply_ite] only add cache
      entries under their own operator codes (0..9);
    - [QCacheOK]: the cache invariant extended to the entries of [quant_rec],
      [restrict], [substitute], [apply_quant]; [qresult_ok]. *)

From Coq Require Import List NArith PArith Bool Arith Lia FMapPositive.
From OxiVerif Require Import DD.Table DD.TableProofs DD.Canon DD.Sem DD.Build DD.BuildProofs
  DD.Apply DD.ApplyProofs DD.Quant.
Import ListNotations.

Definition cfun := (nat -> nat) -> bool.

(** ** Choices up to pointwise equality *)

Definition ceq (c c' : nat -> nat) : Prop := forall l, c l = c' l.

Definition cext (phi : cfun) : Prop :=
  forall c c', bchoice c -> bchoice c' -> ceq c c' -> phi c = phi c'.

Lemma cext_indep : forall phi L, indep phi L -> cext phi.
Proof. intros phi L I c c' Hc Hc' E. apply I; auto. Qed.

Lemma indep_cext : forall phi, cext phi -> indep phi 0.
Proof. intros phi X c c' Hc Hc' E. apply X; auto. intros l. apply E. lia. Qed.

Lemma den_cext : forall s r phi, WF s -> Den s r phi -> cext phi.
Proof. intros s r phi H D. eapply cext_indep. apply (den_indep s r phi H D). Qed.

Lemma children2 : forall s id nd t e, WF s -> find_node s id = Some nd -> nchildren nd = [t; e] ->
  (ref_ok s (eref t) /\ nlevel nd < rlevel s (eref t)) /\
  (ref_ok s (eref e) /\ nlevel nd < rlevel s (eref e)).
Proof.
  intros s id nd t e H En Ech. split; apply (wf_child s H id nd _ En); rewrite Ech; simpl; auto.
Qed.

Lemma den_node : forall s id nd phi, BddOK s -> Den s (RN id) phi -> find_node s id = Some nd ->
  nlevel nd < nlevels s /\ indep phi (nlevel nd) /\
  exists t e, nchildren nd = [t; e] /\
    Den s (eref t) (cofn phi (nlevel nd) 0) /\ Den s (eref e) (cofn phi (nlevel nd) 1) /\
    nlevel nd < rlevel s (eref t) /\ nlevel nd < rlevel s (eref e).
Proof.
  intros s id nd phi B D En. pose proof (bo_wf s B) as H.
  split; [apply (wf_level s H id nd En)|].
  split; [rewrite <- (rlevel_node s id nd En); apply (den_indep s _ phi H D)|].
  destruct (bdd_children s id nd B En) as [t [e Ech]]. exists t, e. split; [exact Ech|].
  split; [apply (den_child s id nd 0 t phi B D En); rewrite Ech; reflexivity|].
  split; [apply (den_child s id nd 1 e phi B D En); rewrite Ech; reflexivity|].
  destruct (children2 s id nd t e H En Ech) as [[_ Lt] [_ Le]]. split; assumption.
Qed.

Lemma fuel_extends : forall s s' r n, extends s s' -> ref_ok s r ->
  nlevels s - rlevel s r < n -> nlevels s' - rlevel s' r < n.
Proof. intros s s' r n X Hok Hn. rewrite (ext_nlevels _ _ X), (ext_rlevel _ _ _ X Hok). exact Hn. Qed.

Lemma cupd_comm : forall c l m i j, l <> m -> ceq (cupd (cupd c l i) m j) (cupd (cupd c m j) l i).
Proof.
  intros c l m i j Hne x. unfold cupd.
  destruct (Nat.eqb_spec x m) as [Em|Hm]; destruct (Nat.eqb_spec x l) as [El|Hl]; try reflexivity.
  subst. contradiction.
Qed.

Lemma cupd_cupd : forall c l i j, ceq (cupd (cupd c l i) l j) (cupd c l j).
Proof. intros c l i j x. unfold cupd. destruct (Nat.eqb x l); reflexivity. Qed.

Lemma cupd_self : forall c l, ceq (cupd c l (c l)) c.
Proof. intros c l x. unfold cupd. destruct (Nat.eqb_spec x l) as [->|]; reflexivity. Qed.

Lemma ceq_cupd : forall c c' l i, ceq c c' -> ceq (cupd c l i) (cupd c' l i).
Proof. intros c c' l i E x. unfold cupd. destruct (Nat.eqb x l); [reflexivity | apply E]. Qed.

Lemma cext_cofn : forall phi l i, cext phi -> i < 2 -> cext (cofn phi l i).
Proof.
  intros phi l i X Hi c c' Hc Hc' E. unfold cofn.
  apply X; try (apply bchoice_upd; assumption). apply ceq_cupd. exact E.
Qed.

Ltac bc := repeat (apply bchoice_upd); try assumption; try lia; auto.

Lemma cext_comm : forall psi, cext psi -> forall c l m i j, bchoice c -> i < 2 -> j < 2 -> l <> m ->
  psi (cupd (cupd c l i) m j) = psi (cupd (cupd c m j) l i).
Proof. intros psi G c l m i j Hc Hi Hj Hne. apply G; [bc | bc | apply cupd_comm; exact Hne]. Qed.

Lemma cext_dbl : forall psi, cext psi -> forall c l i j, bchoice c -> i < 2 -> j < 2 ->
  psi (cupd (cupd c l i) l j) = psi (cupd c l j).
Proof. intros psi G c l i j Hc Hi Hj. apply G; [bc | bc | apply cupd_cupd]. Qed.

(** the function does not depend on level [l] *)
Definition nodep (phi : cfun) (l : nat) : Prop :=
  forall c i, bchoice c -> i < 2 -> phi (cupd c l i) = phi c.

Lemma indep_nodep : forall phi K l, indep phi K -> l < K -> nodep phi l.
Proof.
  intros phi K l I Hl c i Hc Hi. apply I; [apply bchoice_upd; assumption | exact Hc|].
  intros x Hx. unfold cupd. destruct (Nat.eqb_spec x l); [lia | reflexivity].
Qed.

Lemma cofn_self : forall phi c l, cext phi -> bchoice c -> cofn phi l (c l) c = phi c.
Proof.
  intros phi c l X Hc. unfold cofn. apply X; [apply bchoice_upd; [exact Hc | apply Hc] | exact Hc|].
  apply cupd_self.
Qed.

(** ** Iterated quantification over levels (mirrors [Sem.quant]) *)

Definition qlev (q : bool -> bool -> bool) (l : nat) (phi : cfun) : cfun :=
  fun c => q (cofn phi l 0 c) (cofn phi l 1 c).

Fixpoint qlevs (q : bool -> bool -> bool) (L : list nat) (phi : cfun) : cfun :=
  match L with
  | [] => phi
  | l :: r => qlev q l (qlevs q r phi)
  end.

Lemma indep_qlev : forall q l phi K, indep phi K -> indep (qlev q l phi) K.
Proof.
  intros q l phi K I c c' Hc Hc' E. unfold qlev, cofn.
  rewrite (I (cupd c l 0) (cupd c' l 0)), (I (cupd c l 1) (cupd c' l 1)); auto using bchoice_upd;
    intros x Hx; unfold cupd; destruct (Nat.eqb x l); auto.
Qed.

Lemma indep_qlevs : forall q L phi K, indep phi K -> indep (qlevs q L phi) K.
Proof.
  intros q L phi K I. induction L as [|l r IH]; [exact I|]. simpl. apply indep_qlev. exact IH.
Qed.

Lemma cext_qlevs : forall q L phi, cext phi -> cext (qlevs q L phi).
Proof. intros q L phi X. eapply cext_indep. apply indep_qlevs. apply indep_cext. exact X. Qed.

Lemma qlevs_ext : forall q L phi phi', (forall c, bchoice c -> phi c = phi' c) ->
  forall c, bchoice c -> qlevs q L phi c = qlevs q L phi' c.
Proof.
  intros q L phi phi' E. induction L as [|l r IH]; intros c Hc; [apply E; exact Hc|].
  simpl. unfold qlev, cofn. rewrite !IH by (apply bchoice_upd; auto). reflexivity.
Qed.

(** a cofactor w.r.t. a level that is not quantified commutes with the quantification *)
Lemma cofn_qlevs : forall q L phi l i, cext phi -> ~ In l L -> i < 2 ->
  forall c, bchoice c -> cofn (qlevs q L phi) l i c = qlevs q L (cofn phi l i) c.
Proof.
  intros q L phi l i X. induction L as [|m r IH]; intros Hn Hi c Hc; [reflexivity|].
  simpl in Hn. assert (Hml : l <> m) by (intros ->; tauto). assert (Hnr : ~ In l r) by tauto.
  pose proof (cext_qlevs q r phi X) as G.
  change (q (qlevs q r phi (cupd (cupd c l i) m 0)) (qlevs q r phi (cupd (cupd c l i) m 1))
          = q (qlevs q r (cofn phi l i) (cupd c m 0)) (qlevs q r (cofn phi l i) (cupd c m 1))).
  rewrite <- (IH Hnr Hi (cupd c m 0)), <- (IH Hnr Hi (cupd c m 1)) by (apply bchoice_upd; auto).
  unfold cofn.
  rewrite (cext_comm _ G c l m i 0 Hc Hi ltac:(lia) Hml).
  rewrite (cext_comm _ G c l m i 1 Hc Hi ltac:(lia) Hml).
  reflexivity.
Qed.

Lemma nodep_qlevs : forall q L phi l, cext phi -> nodep phi l -> nodep (qlevs q L phi) l.
Proof.
  intros q L phi l X Hn. induction L as [|m r IH]; [exact Hn|].
  pose proof (cext_qlevs q r phi X) as G.
  intros c i Hc Hi. simpl. unfold qlev, cofn.
  destruct (Nat.eq_dec l m) as [->|Hne].
  - rewrite (cext_dbl _ G c m i 0 Hc Hi ltac:(lia)).
    rewrite (cext_dbl _ G c m i 1 Hc Hi ltac:(lia)).
    reflexivity.
  - rewrite (cext_comm _ G c l m i 0 Hc Hi ltac:(lia) Hne).
    rewrite (cext_comm _ G c l m i 1 Hc Hi ltac:(lia) Hne).
    rewrite !IH by auto using bchoice_upd. reflexivity.
Qed.

(** idempotent connective: levels the function does not depend on can be dropped *)
Lemma qlev_nodep_idem : forall q l phi, (forall x, q x x = x) -> nodep phi l ->
  forall c, bchoice c -> qlev q l phi c = phi c.
Proof. intros q l phi I Hn c Hc. unfold qlev, cofn. rewrite !Hn by auto. apply I. Qed.

Lemma qlevs_nodep_idem : forall q L phi, (forall x, q x x = x) -> cext phi ->
  (forall l, In l L -> nodep phi l) -> forall c, bchoice c -> qlevs q L phi c = phi c.
Proof.
  intros q L phi I X. induction L as [|l r IH]; intros Hn c Hc; [reflexivity|].
  simpl. rewrite qlev_nodep_idem; auto.
  - apply IH; auto. intros m Hm. apply Hn. right. exact Hm.
  - apply nodep_qlevs; auto. apply Hn. left. reflexivity.
Qed.

(** exclusive or: quantifying a level the function does not depend on gives false *)
Lemma qlev_xor_nodep : forall l phi, nodep phi l ->
  forall c, bchoice c -> qlev xorb l phi c = false.
Proof. intros l phi Hn c Hc. unfold qlev, cofn. rewrite !Hn by auto. apply xorb_nilpotent. Qed.

(** Shannon expansion of a quantified function on a level outside the list *)
Lemma qlevs_shannon : forall q L phi lvl, cext phi -> ~ In lvl L ->
  forall c, bchoice c ->
  (if Nat.eqb (c lvl) 0 then qlevs q L (cofn phi lvl 0) c else qlevs q L (cofn phi lvl 1) c)
  = qlevs q L phi c.
Proof.
  intros q L phi lvl X Hn c Hc.
  rewrite (shannon_pick c lvl (fun i => qlevs q L (cofn phi lvl i) c) Hc).
  rewrite <- cofn_qlevs by (auto; apply Hc).
  apply cofn_self; [apply cext_qlevs; exact X | exact Hc].
Qed.

(** ** Cofactor w.r.t. a list of level literals (mirrors [Sem.restrict_s]) *)

Definition lit_ix (b : bool) : nat := if b then 0 else 1.

Lemma lit_ix_lt : forall b, lit_ix b < 2.
Proof. intros []; simpl; lia. Qed.

Fixpoint restr (M : list (nat * bool)) (phi : cfun) : cfun :=
  match M with
  | [] => phi
  | (l, b) :: r => cofn (restr r phi) l (lit_ix b)
  end.

Lemma indep_restr : forall M phi K, indep phi K -> indep (restr M phi) K.
Proof.
  intros M phi K I. induction M as [|[l b] r IH]; [exact I|].
  simpl. intros c c' Hc Hc' E. unfold cofn. apply IH; auto using bchoice_upd, lit_ix_lt.
  intros x Hx. unfold cupd. destruct (Nat.eqb x l); auto.
Qed.

Lemma cext_restr : forall M phi, cext phi -> cext (restr M phi).
Proof. intros M phi X. eapply cext_indep. apply indep_restr. apply indep_cext. exact X. Qed.

Lemma restr_ext : forall M phi phi', (forall c, bchoice c -> phi c = phi' c) ->
  forall c, bchoice c -> restr M phi c = restr M phi' c.
Proof.
  intros M phi phi' E. induction M as [|[l b] r IH]; intros c Hc; [apply E; exact Hc|].
  simpl. unfold cofn. apply IH. apply bchoice_upd; auto using lit_ix_lt.
Qed.

Lemma cofn_restr : forall M phi l i, cext phi -> ~ In l (map fst M) -> i < 2 ->
  forall c, bchoice c -> cofn (restr M phi) l i c = restr M (cofn phi l i) c.
Proof.
  intros M phi l i X. induction M as [|[m b] r IH]; intros Hn Hi c Hc; [reflexivity|].
  simpl in Hn. assert (Hml : l <> m) by (intros ->; tauto). assert (Hnr : ~ In l (map fst r)) by tauto.
  pose proof (cext_restr r phi X) as G. pose proof (lit_ix_lt b) as Hb.
  simpl. unfold cofn at 1. unfold cofn at 1. unfold cofn at 1.
  rewrite <- (IH Hnr Hi (cupd c m (lit_ix b))) by (apply bchoice_upd; auto).
  unfold cofn. apply G; auto using bchoice_upd. apply cupd_comm. exact Hml.
Qed.

Lemma nodep_restr : forall M phi l, cext phi -> nodep phi l -> nodep (restr M phi) l.
Proof.
  intros M phi l X Hn. induction M as [|[m b] r IH]; [exact Hn|].
  pose proof (cext_restr r phi X) as G. pose proof (lit_ix_lt b) as Hb.
  intros c i Hc Hi. simpl. unfold cofn.
  destruct (Nat.eq_dec l m) as [->|Hne].
  - apply G; auto using bchoice_upd. apply cupd_cupd.
  - rewrite (cext_comm _ G c l m i (lit_ix b) Hc Hi Hb Hne).
    apply IH; auto using bchoice_upd.
Qed.

(** a literal on a level the function does not depend on can be dropped *)
Lemma restr_drop : forall M phi l b, cext phi -> nodep phi l ->
  forall c, bchoice c -> restr ((l, b) :: M) phi c = restr M phi c.
Proof.
  intros M phi l b X Hn c Hc. simpl. unfold cofn.
  apply (nodep_restr M phi l X Hn); auto using lit_ix_lt.
Qed.

(** the top literal can be pushed inside when its level is not in the rest *)
Lemma restr_push : forall M phi l b, cext phi -> ~ In l (map fst M) ->
  forall c, bchoice c -> restr ((l, b) :: M) phi c = restr M (cofn phi l (lit_ix b)) c.
Proof. intros M phi l b X Hn c Hc. simpl. apply cofn_restr; auto using lit_ix_lt. Qed.

Lemma restr_shannon : forall M phi lvl, cext phi -> ~ In lvl (map fst M) ->
  forall c, bchoice c ->
  (if Nat.eqb (c lvl) 0 then restr M (cofn phi lvl 0) c else restr M (cofn phi lvl 1) c)
  = restr M phi c.
Proof.
  intros M phi lvl X Hn c Hc.
  rewrite (shannon_pick c lvl (fun i => restr M (cofn phi lvl i) c) Hc).
  rewrite <- cofn_restr by (auto; apply Hc).
  apply cofn_self; [apply cext_restr; exact X | exact Hc].
Qed.

(** ** Simultaneous substitution of levels by references *)

(** the canonical denotation of a reference *)
Definition dfun (s : snap) (r : ref) : cfun :=
  fun c => match semk s (S (nlevels s)) r c with Some 1%N => true | _ => false end.

Lemma den_dfun : forall s r, BddOK s -> ref_ok s r -> Den s r (dfun s r).
Proof.
  intros s r B Hok. split; [exact Hok|]. intros c Hc. unfold dfun.
  destruct (den_exists s r B Hok) as [phi [_ D]]. rewrite (D c Hc). destruct (phi c); reflexivity.
Qed.

Lemma dfun_den : forall s r phi, Den s r phi -> forall c, bchoice c -> dfun s r c = phi c.
Proof. intros s r phi [_ D] c Hc. unfold dfun. rewrite (D c Hc). destruct (phi c); reflexivity. Qed.

Lemma dfun_extends : forall s s' r c, WF s -> extends s s' -> ref_ok s r -> dfun s' r c = dfun s r c.
Proof.
  intros s s' r c H X Hok. unfold dfun.
  rewrite (ext_nlevels _ _ X), (semk_extends s s' H X _ r c Hok). reflexivity.
Qed.

(** the choice under which the substituted function is evaluated: level [l]
    takes the then-child iff its replacement is true under [c].  What does not
    depend on how a replacement denotes is said for any type [A] of
    replacements and any [d : A -> cfun]; [sch] / [schC] (DD/QuantBcddLemmas.v)
    are the instances at [dfun s] / [dfunC s]. *)
Section Sch.
Variable A : Type.
Variable d : A -> cfun.

Definition gsch (sv : list A) (c : nat -> nat) : nat -> nat :=
  fun l => match nth_error sv l with
           | Some r => if d r c then 0 else 1
           | None => c l
           end.

Lemma gsch_bchoice : forall sv c, bchoice c -> bchoice (gsch sv c).
Proof.
  intros sv c Hc l. unfold gsch. destruct (nth_error sv l) as [r|]; [destruct (d r c); lia | apply Hc].
Qed.

Lemma gsch_beyond : forall sv phi lvl c, indep phi lvl -> length sv <= lvl -> bchoice c ->
  phi c = phi (gsch sv c).
Proof.
  intros sv phi lvl c I Hlen Hc. apply I; [exact Hc | apply gsch_bchoice; exact Hc|].
  intros l Hl. unfold gsch.
  assert (En : nth_error sv l = None) by (apply nth_error_None; lia). rewrite En. reflexivity.
Qed.

Lemma gsch_shannon : forall sv phi lvl r c, cext phi -> bchoice c -> nth_error sv lvl = Some r ->
  (if d r c then cofn phi lvl 0 (gsch sv c) else cofn phi lvl 1 (gsch sv c)) = phi (gsch sv c).
Proof.
  intros sv phi lvl r c X Hc Er. unfold cofn. pose proof (gsch_bchoice sv c Hc) as Hs.
  assert (Esl : gsch sv c lvl = if d r c then 0 else 1) by (unfold gsch; rewrite Er; reflexivity).
  destruct (d r c); (apply X; [apply bchoice_upd; [exact Hs | lia] | exact Hs|]; rewrite <- Esl; apply cupd_self).
Qed.

End Sch.

Definition sch (s : snap) (sv : list ref) (c : nat -> nat) : nat -> nat :=
  fun l => match nth_error sv l with
           | Some r => if dfun s r c then 0 else 1
           | None => c l
           end.

Definition csubst (s : snap) (sv : list ref) (phi : cfun) : cfun := fun c => phi (sch s sv c).

Lemma sch_bchoice : forall s sv c, bchoice c -> bchoice (sch s sv c).
Proof.
  intros s sv. exact (gsch_bchoice ref (dfun s) sv).
Qed.

Lemma sch_extends : forall s s' sv c, WF s -> extends s s' -> Forall (ref_ok s) sv ->
  ceq (sch s' sv c) (sch s sv c).
Proof.
  intros s s' sv c H X F l. unfold sch. destruct (nth_error sv l) as [r|] eqn:E; [|reflexivity].
  rewrite (dfun_extends s s' r c H X); [reflexivity|].
  rewrite Forall_forall in F. apply F. eapply nth_error_In; eauto.
Qed.

Lemma csubst_extends : forall s s' sv phi, WF s -> extends s s' -> Forall (ref_ok s) sv -> cext phi ->
  forall c, bchoice c -> csubst s' sv phi c = csubst s sv phi c.
Proof.
  intros s s' sv phi H X F Xp c Hc. unfold csubst.
  apply Xp; auto using sch_bchoice. apply sch_extends; assumption.
Qed.

Lemma csubst_ext : forall s sv phi phi', (forall c, bchoice c -> phi c = phi' c) ->
  forall c, bchoice c -> csubst s sv phi c = csubst s sv phi' c.
Proof. intros s sv phi phi' E c Hc. unfold csubst. apply E. apply sch_bchoice. exact Hc. Qed.

(** the same for a substitution object: pairs (variable, replacement); a level
    is replaced iff its variable is listed *)
Definition psch (s : snap) (pairs : list (nat * ref)) (c : nat -> nat) : nat -> nat :=
  fun l => match nth_error (s_l2v s) l with
           | Some v => match assoc_nat pairs v with
                       | Some r => if dfun s r c then 0 else 1
                       | None => c l
                       end
           | None => c l
           end.

Definition psubst (s : snap) (pairs : list (nat * ref)) (phi : cfun) : cfun :=
  fun c => phi (psch s pairs c).

Definition pairs_ok (s : snap) (pairs : list (nat * ref)) : Prop :=
  forall v r, In (v, r) pairs -> ref_ok s r.

Lemma assoc_nat_In : forall (A : Type) (l : list (nat * A)) k x, assoc_nat l k = Some x -> In (k, x) l.
Proof.
  intros A l k x. induction l as [|[a b] r IH]; simpl; [discriminate|].
  destruct (Nat.eqb_spec a k) as [->|Hne]; intros E; [inversion E; subst; left; reflexivity | right; auto].
Qed.

Lemma psch_bchoice : forall s pairs c, bchoice c -> bchoice (psch s pairs c).
Proof.
  intros s pairs c Hc l. unfold psch. destruct (nth_error (s_l2v s) l) as [v|]; [|apply Hc].
  destruct (assoc_nat pairs v) as [r|]; [destruct (dfun s r c); lia | apply Hc].
Qed.

Lemma psch_extends : forall s s' pairs c, WF s -> extends s s' -> pairs_ok s pairs ->
  ceq (psch s' pairs c) (psch s pairs c).
Proof.
  intros s s' pairs c H X F l. unfold psch. rewrite (ext_l2v _ _ X).
  destruct (nth_error (s_l2v s) l) as [v|]; [|reflexivity].
  destruct (assoc_nat pairs v) as [r|] eqn:E; [|reflexivity].
  rewrite (dfun_extends s s' r c H X); [reflexivity|]. apply (F v r). apply assoc_nat_In. exact E.
Qed.

Lemma psubst_extends : forall s s' pairs phi, WF s -> extends s s' -> pairs_ok s pairs -> cext phi ->
  forall c, bchoice c -> psubst s' pairs phi c = psubst s pairs phi c.
Proof.
  intros s s' pairs phi H X F Xp c Hc. unfold psubst.
  apply Xp; auto using psch_bchoice. apply psch_extends; assumption.
Qed.

Lemma psubst_ext : forall s pairs phi phi', (forall c, bchoice c -> phi c = phi' c) ->
  forall c, bchoice c -> psubst s pairs phi c = psubst s pairs phi' c.
Proof. intros s pairs phi phi' E c Hc. unfold psubst. apply E. apply psch_bchoice. exact Hc. Qed.

Lemma pairs_ok_extends : forall s s' pairs, extends s s' -> pairs_ok s pairs -> pairs_ok s' pairs.
Proof. intros s s' pairs X F v r Hin. apply (ext_ref_ok _ _ _ X). apply (F v r Hin). Qed.

Lemma forall_ref_ok_extends : forall s s' sv, extends s s' -> Forall (ref_ok s) sv -> Forall (ref_ok s') sv.
Proof. intros s s' sv X F. eapply Forall_impl; [|exact F]. intros r. apply (ext_ref_ok _ _ _ X). Qed.

(** the level-indexed vector built by [substitute_prepare] agrees with the object *)
Definition SvOK (s : snap) (sv : list ref) (pairs : list (nat * ref)) : Prop :=
  Forall (ref_ok s) sv /\ pairs_ok s pairs /\
  forall c, bchoice c -> ceq (sch s sv c) (psch s pairs c).

Lemma svok_extends : forall s s' sv pairs, WF s -> extends s s' -> SvOK s sv pairs -> SvOK s' sv pairs.
Proof.
  intros s s' sv pairs H X [F [P E]]. split; [|split].
  - apply (forall_ref_ok_extends s s' sv X F).
  - apply (pairs_ok_extends s s' pairs X P).
  - intros c Hc l. rewrite (sch_extends s s' sv c H X F l), (psch_extends s s' pairs c H X P l).
    apply E. exact Hc.
Qed.

(** ** Variable sets and literal cubes as the algorithms read them *)

(** the levels along the then-children *)
Inductive VChain (s : snap) : ref -> list nat -> Prop :=
| VC_T : forall t, VChain s (RT t) []
| VC_N : forall id nd t e L, find_node s id = Some nd -> nchildren nd = [t; e] ->
    VChain s (eref t) L -> VChain s (RN id) (nlevel nd :: L).

(** the literals of a cube: then-child inner or true = positive literal,
    then-child false = negative literal (continue with the else-child) *)
Inductive LChain (s : snap) : ref -> list (nat * bool) -> Prop :=
| LC_T : forall t, LChain s (RT t) []
| LC_pos : forall id nd t e M, find_node s id = Some nd -> nchildren nd = [t; e] ->
    (view s (eref t) = Some VI \/ view s (eref t) = Some (VT true)) ->
    LChain s (eref t) M -> LChain s (RN id) ((nlevel nd, true) :: M)
| LC_neg : forall id nd t e M, find_node s id = Some nd -> nchildren nd = [t; e] ->
    view s (eref t) = Some (VT false) ->
    LChain s (eref e) M -> LChain s (RN id) ((nlevel nd, false) :: M).

(** strictly increasing, all at least [K] *)
Fixpoint asc (K : nat) (L : list nat) : Prop :=
  match L with
  | [] => True
  | l :: r => K <= l /\ asc (S l) r
  end.

Lemma asc_mono : forall L K K', asc K L -> K' <= K -> asc K' L.
Proof. intros [|l r] K K' A Hle; [exact I|]. destruct A as [A1 A2]. split; [lia | exact A2]. Qed.

Lemma asc_ge : forall L K l, asc K L -> In l L -> K <= l.
Proof.
  induction L as [|m r IH]; intros K l A Hin; [destruct Hin|].
  destruct A as [A1 A2]. destruct Hin as [->|Hin]; [exact A1|].
  specialize (IH _ _ A2 Hin). lia.
Qed.

Lemma asc_notin : forall L K l, asc K L -> l < K -> ~ In l L.
Proof. intros L K l A Hl Hin. pose proof (asc_ge L K l A Hin). lia. Qed.

Lemma asc_nodup : forall L K, asc K L -> NoDup L.
Proof.
  induction L as [|m r IH]; intros K A; [constructor|]. destruct A as [A1 A2].
  constructor; [apply (asc_notin r (S m) m A2); lia | apply (IH _ A2)].
Qed.

Section Chains.
Variable s : snap.
Hypothesis B : BddOK s.

Lemma vchain_asc : forall r L, VChain s r L -> asc (rlevel s r) L.
Proof.
  intros r L V. induction V as [t|id nd t e L En Ech V IH]; [exact I|].
  rewrite (rlevel_node s id nd En). split; [lia|].
  destruct (children2 s id nd t e (bo_wf s B) En Ech) as [[_ Hl] _]. apply (asc_mono _ _ _ IH). lia.
Qed.

Lemma vchain_fun : forall r L L', VChain s r L -> VChain s r L' -> L = L'.
Proof.
  intros r L L' V. revert L'. induction V as [t|id nd t e L En Ech V IH]; intros L' V'.
  - inversion V'. reflexivity.
  - inversion V' as [|id' nd' t' e' L2 En' Ech' V2]; subst.
    rewrite En in En'. inversion En'; subst nd'. rewrite Ech in Ech'. inversion Ech'; subst t' e'.
    f_equal. apply IH. exact V2.
Qed.

Lemma vchain_exists : forall n r, ref_ok s r -> nlevels s - rlevel s r < n -> exists L, VChain s r L.
Proof.
  induction n as [|n IH]; intros r Hok Hn; [lia|].
  destruct r as [t|id]; [exists []; constructor|].
  destruct Hok as [nd En]. destruct (bdd_children s id nd B En) as [t [e Ech]].
  destruct (children2 s id nd t e (bo_wf s B) En Ech) as [[Ot Hl] _].
  rewrite (rlevel_node s id nd En) in Hn.
  pose proof (rlevel_le s (bo_wf s B) (eref t)).
  destruct (IH (eref t) Ot ltac:(lia)) as [L V]. exists (nlevel nd :: L). econstructor; eauto.
Qed.

Lemma vchain_total : forall r, ref_ok s r -> exists L, VChain s r L.
Proof. intros r Hok. apply (vchain_exists (S (nlevels s)) r Hok). lia. Qed.

Lemma vchain_lt : forall r L l, VChain s r L -> In l L -> l < nlevels s.
Proof.
  intros r L l V. induction V as [t|id nd t e L En Ech V IH]; intros Hin; [destruct Hin|].
  destruct Hin as [<-|Hin]; [apply (wf_level s (bo_wf s B) id nd En) | auto].
Qed.

Lemma lchain_asc : forall r M, LChain s r M -> asc (rlevel s r) (map fst M).
Proof.
  intros r M V.
  induction V as [t|id nd t e M En Ech Hv V IH|id nd t e M En Ech Hv V IH]; [exact I| |];
    rewrite (rlevel_node s id nd En); (split; [simpl; lia|]).
  - destruct (children2 s id nd t e (bo_wf s B) En Ech) as [[_ Hl] _]. apply (asc_mono _ _ _ IH). simpl. lia.
  - destruct (children2 s id nd t e (bo_wf s B) En Ech) as [_ [_ Hl]]. apply (asc_mono _ _ _ IH). simpl. lia.
Qed.

Lemma lchain_exists : forall n r, ref_ok s r -> nlevels s - rlevel s r < n -> exists M, LChain s r M.
Proof.
  induction n as [|n IH]; intros r Hok Hn; [lia|].
  destruct r as [t|id]; [exists []; constructor|].
  destruct Hok as [nd En]. destruct (bdd_children s id nd B En) as [t [e Ech]].
  destruct (children2 s id nd t e (bo_wf s B) En Ech) as [[Ot Hlt] [Oe Hle]].
  rewrite (rlevel_node s id nd En) in Hn.
  pose proof (rlevel_le s (bo_wf s B) (eref t)). pose proof (rlevel_le s (bo_wf s B) (eref e)).
  destruct (view_total s (eref t) B Ot) as [[|[]] Vt].
  1-2: destruct (IH (eref t) Ot ltac:(lia)) as [M V]; exists ((nlevel nd, true) :: M); eapply LC_pos; eauto.
  destruct (IH (eref e) Oe ltac:(lia)) as [M V]. exists ((nlevel nd, false) :: M). eapply LC_neg; eauto.
Qed.

Lemma lchain_total : forall r, ref_ok s r -> exists M, LChain s r M.
Proof. intros r Hok. apply (lchain_exists (S (nlevels s)) r Hok). lia. Qed.

End Chains.

Lemma view_extends : forall s s' r, extends s s' -> view s' r = view s r.
Proof. intros s s' [t|id] X; simpl; [rewrite (ext_term_val _ _ t X)|]; reflexivity. Qed.

Lemma vchain_extends : forall s s' r L, extends s s' -> VChain s r L -> VChain s' r L.
Proof.
  intros s s' r L X V. induction V as [t|id nd t e L En Ech V IH]; [constructor|].
  econstructor; eauto. apply (ext_nodes _ _ X). exact En.
Qed.

Lemma lchain_extends : forall s s' r M, extends s s' -> LChain s r M -> LChain s' r M.
Proof.
  intros s s' r M X V.
  induction V as [t|id nd t e M En Ech Hv V IH|id nd t e M En Ech Hv V IH]; [constructor| |].
  - eapply LC_pos; eauto; [apply (ext_nodes _ _ X); exact En | rewrite (view_extends _ _ _ X); exact Hv].
  - eapply LC_neg; eauto; [apply (ext_nodes _ _ X); exact En | rewrite (view_extends _ _ _ X); exact Hv].
Qed.

(** a cube of positive literals read as a variable set *)
Lemma lchain_vchain : forall s r M, LChain s r M -> (forall p, In p M -> snd p = true) ->
  VChain s r (map fst M).
Proof.
  intros s r M V. induction V as [t|id nd t e M En Ech Hv V IH|id nd t e M En Ech Hv V IH]; intros Hp.
  - constructor.
  - simpl. econstructor; eauto. apply IH. intros p Hin. apply Hp. right. exact Hin.
  - specialize (Hp (nlevel nd, false) (or_introl eq_refl)). discriminate.
Qed.

(** ** [set_pop] *)

Lemma set_pop_S : forall n s set until,
  set_pop (S n) s set until =
  match set with
  | RT _ => Some set
  | RN id =>
    match find_node s id with
    | None => None
    | Some nd =>
      if Nat.leb until (nstored nd) then Some set
      else match nchildren nd with
           | [t; _] => set_pop n s (eref t) until
           | _ => None
           end
    end
  end.
Proof. intros n s [t|id] until; reflexivity. Qed.

(** [set_pop] returns the first reference of the chain at or below [until];
    the dropped levels are all above [until] *)
Lemma set_pop_ok : forall s, BddOK s -> forall fuel vars L until,
  ref_ok s vars -> VChain s vars L -> nlevels s - rlevel s vars < fuel -> until <= nlevels s ->
  exists vars' L', set_pop fuel s vars until = Some vars' /\ ref_ok s vars' /\
    VChain s vars' L' /\ until <= rlevel s vars' /\ rlevel s vars <= rlevel s vars' /\
    exists pre, L = pre ++ L' /\ forall l, In l pre -> l < until.
Proof.
  intros s B. pose proof (bo_wf s B) as H.
  induction fuel as [|n IH]; intros vars L until Hok V Hf Hu; [lia|].
  rewrite set_pop_S. destruct V as [t|id nd t e L En Ech V].
  - exists (RT t), []. split; [reflexivity|]. split; [exact Hok|]. split; [constructor|].
    simpl rlevel. split; [exact Hu|]. split; [lia|]. exists []. split; [reflexivity | intros l []].
  - rewrite En, (wf_stored s H id nd En). rewrite (rlevel_node s id nd En) in Hf.
    destruct (Nat.leb_spec until (nlevel nd)) as [Hle|Hgt].
    + exists (RN id), (nlevel nd :: L). split; [reflexivity|]. split; [exact Hok|].
      split; [econstructor; eauto|]. rewrite (rlevel_node s id nd En).
      split; [exact Hle|]. split; [lia|]. exists []. split; [reflexivity | intros l []].
    + rewrite Ech.
      destruct (children2 s id nd t e H En Ech) as [[Ot Hl] _].
      pose proof (rlevel_le s H (eref t)).
      destruct (IH (eref t) L until Ot V ltac:(lia) Hu) as [vars' [L' [E [O' [V' [Hu' [Hr [pre [EL Hpre]]]]]]]]].
      exists vars', L'. split; [exact E|]. split; [exact O'|]. split; [exact V'|].
      split; [exact Hu'|]. rewrite (rlevel_node s id nd En). split; [lia|].
      exists (nlevel nd :: pre). split; [simpl; rewrite EL; reflexivity|].
      intros l [<-|Hin]; [exact Hgt | apply Hpre; exact Hin].
Qed.

(** ** Frame lemmas for the apply algorithms *)

Section Frame.
Variable gt : ref -> ref -> bool.
Variable C : Type.
Variable cget : C -> N -> list ref -> option ref.
Variable cadd : C -> N -> list ref -> ref -> C.
Hypothesis Hlossy : lossy cget cadd.

(** everything [c'] serves under an operator code above [Ite] was served by [c] *)
Definition serves_from (c c' : C) : Prop :=
  forall k a r, cget c' k a = Some r -> (k <= 9)%N \/ cget c k a = Some r.

Lemma sf_refl : forall c, serves_from c c.
Proof. intros c k a r E. right. exact E. Qed.

Lemma sf_trans : forall c1 c2 c3, serves_from c1 c2 -> serves_from c2 c3 -> serves_from c1 c3.
Proof.
  intros c1 c2 c3 A A' k a r E. destruct (A' k a r E) as [Hk|E2]; [left; exact Hk | apply (A k a r E2)].
Qed.

Lemma sf_add : forall c k a r, (k <= 9)%N -> serves_from c (cadd c k a r).
Proof.
  intros c k a r Hk k' a' r' E.
  destruct (Hlossy _ _ _ _ _ _ _ E) as [[-> _]|E']; [left; exact Hk | right; exact E'].
Qed.

Lemma op_code_le : forall o, (op_code o <= 9)%N.
Proof. intros []; simpl; lia. Qed.

Lemma apply_not_frame : forall fuel s c f s' c' r,
  apply_not C cget cadd fuel s c f = Some (s', c', r) -> serves_from c c'.
Proof.
  induction fuel as [|n IH]; intros s c f s' c' r E; [discriminate|].
  rewrite apply_not_S in E. destruct f as [t|id].
  - destruct (view s (RT t)) as [[|b]|]; try discriminate.
    destruct (term_of s (negb b)); inversion E; subst. apply sf_refl.
  - destruct (find_node s id) as [nd|]; [|discriminate].
    destruct (cget c code_not [RN id]) as [h|]; [inversion E; subst; apply sf_refl|].
    destruct (nchildren nd) as [|ft [|fe [|x rest]]]; try discriminate.
    destruct (apply_not C cget cadd n s c (eref ft)) as [[[s1 c1] t]|] eqn:E1; [|discriminate].
    destruct (apply_not C cget cadd n s1 c1 (eref fe)) as [[[s2 c2] e]|] eqn:E2; [|discriminate].
    destruct (mk_node s2 (nstored nd) [Build.E t; Build.E e]) as [s3 h]. inversion E; subst.
    eapply sf_trans; [apply (IH _ _ _ _ _ _ E1)|]. eapply sf_trans; [apply (IH _ _ _ _ _ _ E2)|].
    apply sf_add. unfold code_not. lia.
Qed.

Lemma apply_bin_frame : forall fuel s c op f g s' c' r,
  apply_bin gt C cget cadd fuel s c op f g = Some (s', c', r) -> serves_from c c'.
Proof.
  induction fuel as [|n IH]; intros s c op f g s' c' r E; [discriminate|].
  rewrite apply_bin_S in E. destruct (terminal_bin gt s op f g) as [h|h|o a b|]; [| | |discriminate].
  - inversion E; subst. apply sf_refl.
  - apply (apply_not_frame _ _ _ _ _ _ _ E).
  - destruct (cget c (op_code o) [a; b]) as [h|]; [inversion E; subst; apply sf_refl|].
    destruct (inner s f) as [fnode|]; [|discriminate]. destruct (inner s g) as [gnode|]; [|discriminate].
    cbv zeta in E.
    destruct (cof2 f fnode _) as [[ft fe]|]; [|discriminate].
    destruct (cof2 g gnode _) as [[gt' ge]|]; [|discriminate].
    destruct (apply_bin gt C cget cadd n s c op ft gt') as [[[s1 c1] t]|] eqn:E1; [|discriminate].
    destruct (apply_bin gt C cget cadd n s1 c1 op fe ge) as [[[s2 c2] e]|] eqn:E2; [|discriminate].
    destruct (mk_node s2 _ [Build.E t; Build.E e]) as [s3 h]. inversion E; subst.
    eapply sf_trans; [apply (IH _ _ _ _ _ _ _ _ E1)|]. eapply sf_trans; [apply (IH _ _ _ _ _ _ _ _ E2)|].
    apply sf_add. apply op_code_le.
Qed.

Lemma apply_ite_frame : forall fuel s c f g h s' c' r,
  apply_ite gt C cget cadd fuel s c f g h = Some (s', c', r) -> serves_from c c'.
Proof.
  induction fuel as [|n IH]; intros s c f g h s' c' r E; [discriminate|].
  rewrite apply_ite_S in E.
  destruct (ref_eqb g h); [inversion E; subst; apply sf_refl|].
  destruct (ref_eqb f g); [apply (apply_bin_frame _ _ _ _ _ _ _ _ _ E)|].
  destruct (ref_eqb f h); [apply (apply_bin_frame _ _ _ _ _ _ _ _ _ E)|].
  destruct (view s f) as [[|bf]|]; [| |discriminate].
  2:{ inversion E; subst. apply sf_refl. }
  destruct (view s g) as [[|[]]|]; destruct (view s h) as [[|[]]|]; try discriminate;
    try (apply (apply_bin_frame _ _ _ _ _ _ _ _ _ E));
    try (apply (apply_not_frame _ _ _ _ _ _ _ E));
    try (inversion E; subst; apply sf_refl).
  destruct (cget c code_ite [f; g; h]) as [r0|]; [inversion E; subst; apply sf_refl|].
  destruct (inner s f) as [fnode|]; [|discriminate]. destruct (inner s g) as [gnode|]; [|discriminate].
  destruct (inner s h) as [hnode|]; [|discriminate]. cbv zeta in E.
  destruct (cof2 f fnode _) as [[ft fe]|]; [|discriminate].
  destruct (cof2 g gnode _) as [[gt' ge]|]; [|discriminate].
  destruct (cof2 h hnode _) as [[ht he]|]; [|discriminate].
  destruct (apply_ite gt C cget cadd n s c ft gt' ht) as [[[s1 c1] t]|] eqn:E1; [|discriminate].
  destruct (apply_ite gt C cget cadd n s1 c1 fe ge he) as [[[s2 c2] e]|] eqn:E2; [|discriminate].
  destruct (mk_node s2 _ [Build.E t; Build.E e]) as [s3 r1]. inversion E; subst.
  eapply sf_trans; [apply (IH _ _ _ _ _ _ _ _ E1)|]. eapply sf_trans; [apply (IH _ _ _ _ _ _ _ _ E2)|].
  apply sf_add. unfold code_ite. lia.
Qed.

(** ** The cache invariant for all operators of the BDD kind *)

(** registry of substitution objects: id |-> the pairs (variable, replacement) *)
Variable Sg : N -> option (list (nat * ref)).

Definition qf (q : quantifier) : bool -> bool -> bool := eval_bop (qop q).

(** the unique quantifier over a list that starts with a level the function
    does not depend on: [g xor g] *)
Lemma qlevs_unique_nodep : forall q l L phi, is_unique q = true -> cext phi -> nodep phi l ->
  forall c, bchoice c -> qlevs (qf q) (l :: L) phi c = false.
Proof.
  intros q l L phi Eq X Hn c Hc. destruct q; try discriminate.
  apply (qlev_xor_nodep l (qlevs (qf QUnique) L phi)); [apply nodep_qlevs; assumption | exact Hc].
Qed.

Lemma indep_bin : forall (o : bool -> bool -> bool) phi psi K K', indep phi K -> indep psi K' ->
  indep (fun c => o (phi c) (psi c)) (Nat.min K K').
Proof.
  intros o phi psi K K' I J x y Hx Hy Exy. f_equal.
  - apply (indep_mono phi K _ I (Nat.le_min_l K K')); auto.
  - apply (indep_mono psi K' _ J (Nat.le_min_r K K')); auto.
Qed.

Lemma cext_bin : forall (o : bool -> bool -> bool) phi psi, cext phi -> cext psi ->
  cext (fun c => o (phi c) (psi c)).
Proof. intros o phi psi X Y c c' Hc Hc' E. rewrite (X c c' Hc Hc' E), (Y c c' Hc Hc' E). reflexivity. Qed.

Definition qentry_ok (s : snap) (code : N) (args : list ref) (r : ref) : Prop :=
  (forall q f vars, code = qcode q -> args = [f; vars] ->
     exists phi L, Den s f phi /\ VChain s vars L /\ Den s r (qlevs (qf q) L phi)) /\
  (forall f vars, code = code_restrict -> args = [f; vars] ->
     exists phi M, Den s f phi /\ LChain s vars M /\ Den s r (restr M phi)) /\
  (forall q o f g vars, code = aqcode q o -> args = [f; g; vars] ->
     exists phi psi L, Den s f phi /\ Den s g psi /\ VChain s vars L /\
       Den s r (qlevs (qf q) L (fun c => eval_bop o (phi c) (psi c)))) /\
  (forall id f, code = code_subst id -> args = [f] ->
     exists pairs phi, Sg id = Some pairs /\ pairs_ok s pairs /\ Den s f phi /\
       Den s r (psubst s pairs phi)).

Definition QCacheOK (s : snap) (c : C) : Prop :=
  CacheOK cget s c /\ forall code args r, cget c code args = Some r -> qentry_ok s code args r.

Lemma qentry_ok_extends : forall s s' code args r, BddOK s -> extends s s' ->
  qentry_ok s code args r -> qentry_ok s' code args r.
Proof.
  intros s s' code args r B X [Q1 [Q2 [Q3 Q4]]]. split; [|split; [|split]].
  - intros q f vars Hc Ha. destruct (Q1 q f vars Hc Ha) as [phi [L [D [V Dr]]]].
    exists phi, L. split; [eapply den_extends; eauto|]. split; [eapply vchain_extends; eauto|].
    eapply den_extends; eauto.
  - intros f vars Hc Ha. destruct (Q2 f vars Hc Ha) as [phi [M [D [V Dr]]]].
    exists phi, M. split; [eapply den_extends; eauto|]. split; [eapply lchain_extends; eauto|].
    eapply den_extends; eauto.
  - intros q o f g vars Hc Ha. destruct (Q3 q o f g vars Hc Ha) as [phi [psi [L [D [D' [V Dr]]]]]].
    exists phi, psi, L. split; [eapply den_extends; eauto|]. split; [eapply den_extends; eauto|].
    split; [eapply vchain_extends; eauto|]. eapply den_extends; eauto.
  - intros id f Hc Ha. destruct (Q4 id f Hc Ha) as [pairs [phi [Es [F [D Dr]]]]].
    exists pairs, phi. split; [exact Es|]. split; [eapply pairs_ok_extends; eauto|].
    split; [eapply den_extends; eauto|].
    apply (den_ext s' r (psubst s pairs phi)); [eapply den_extends; eauto|].
    intros c0 Hc0. symmetry.
    apply (psubst_extends s s' pairs phi (bo_wf s B) X F (den_cext s f phi (bo_wf s B) D) c0 Hc0).
Qed.

(** codes of the apply algorithms carry no obligation here *)
Lemma qentry_ok_low : forall s code args r, (code <= 9)%N -> qentry_ok s code args r.
Proof.
  intros s code args r Hk. split; [|split; [|split]].
  - intros q f vars Hc. exfalso. destruct q; simpl in Hc; lia.
  - intros f vars Hc. exfalso. unfold code_restrict in Hc. lia.
  - intros q o f g vars Hc. exfalso. unfold aqcode in Hc. destruct q; lia.
  - intros id f Hc. exfalso. unfold code_subst in Hc. lia.
Qed.

Lemma qcacheok_frame : forall s s' c c', BddOK s -> extends s s' -> QCacheOK s c ->
  CacheOK cget s' c' -> serves_from c c' -> QCacheOK s' c'.
Proof.
  intros s s' c c' B X [_ Q] O' Sf. split; [exact O'|].
  intros code args r E. destruct (Sf code args r E) as [Hk|E0].
  - apply qentry_ok_low. exact Hk.
  - apply (qentry_ok_extends s s' code args r B X). apply (Q _ _ _ E0).
Qed.

Lemma qcacheok_extends : forall s s' c, BddOK s -> extends s s' -> QCacheOK s c -> QCacheOK s' c.
Proof.
  intros s s' c B X Q. apply (qcacheok_frame s s' c c B X Q); [|apply sf_refl].
  apply (cacheok_extends C cget s s' c B X (proj1 Q)).
Qed.

(** the operator codes lie in disjoint ranges: the apply algorithms up to 9,
    restrict 11, the quantifiers 12..14, apply-and-quantify 15..38, substitute
    from 39 *)
Lemma qcode_range : forall q, (12 <= qcode q <= 14)%N.
Proof. intros []; simpl; lia. Qed.
Lemma aqcode_range : forall q o, (15 <= aqcode q o <= 38)%N.
Proof.
  intros q o. unfold aqcode. assert (1 <= op_code o <= 8)%N by (destruct o; simpl; lia). destruct q; lia.
Qed.

Lemma qcode_gt : forall q, (9 < qcode q)%N.
Proof. intros q. pose proof (qcode_range q). lia. Qed.
Lemma aqcode_gt : forall q o, (9 < aqcode q o)%N.
Proof. intros q o. pose proof (aqcode_range q o). lia. Qed.
Lemma code_subst_gt : forall id, (9 < code_subst id)%N.
Proof. intros id. unfold code_subst. lia. Qed.

Lemma entry_ok_high : forall s code args r, (9 < code)%N -> entry_ok s code args r.
Proof.
  intros s code args r Hk. unfold entry_ok.
  destruct args as [|f [|g [|h [|x rest]]]]; auto.
  - intros Hc. unfold code_not in Hc. lia.
  - intros o Hc. pose proof (op_code_le o). lia.
  - intros Hc. unfold code_ite in Hc. lia.
Qed.

Lemma qcacheok_add : forall s c code args r, QCacheOK s c -> (9 < code)%N ->
  qentry_ok s code args r -> QCacheOK s (cadd c code args r).
Proof.
  intros s c code args r [O Q] Hk Hn. split.
  - apply (cacheok_add C cget cadd Hlossy); [exact O | apply entry_ok_high; exact Hk].
  - intros code' args' r' E.
    destruct (Hlossy _ _ _ _ _ _ _ E) as [[-> [-> ->]]|E']; [exact Hn | apply (Q _ _ _ E')].
Qed.

Lemma qcode_inj : forall q q', qcode q = qcode q' -> q = q'.
Proof. intros [] [] E; simpl in E; try lia; reflexivity. Qed.

Lemma aqcode_inj : forall q o q' o', aqcode q o = aqcode q' o' -> q = q' /\ o = o'.
Proof.
  intros q o q' o' E. unfold aqcode in E.
  assert (Ho : forall x, (1 <= op_code x <= 8)%N) by (intros []; simpl; lia).
  pose proof (Ho o). pose proof (Ho o').
  destruct q, q'; try lia; (split; [reflexivity | apply op_code_inj; lia]).
Qed.

Lemma code_subst_inj : forall i j, code_subst i = code_subst j -> i = j.
Proof. intros i j E. unfold code_subst in E. lia. Qed.

(** building the entry obligations: the clause of the entry's own code holds,
    the other three are about codes in other ranges *)
Lemma qentry_quant : forall s q f vars r phi L,
  Den s f phi -> VChain s vars L -> Den s r (qlevs (qf q) L phi) ->
  qentry_ok s (qcode q) [f; vars] r.
Proof.
  intros s q f vars r phi L D V Dr. pose proof (qcode_range q) as R. split; [|split; [|split]].
  - intros q' f' vars' Hc Ha. apply qcode_inj in Hc. subst q'. inversion Ha; subst. eauto.
  - intros f' vars' Hc. exfalso. unfold code_restrict in Hc. lia.
  - intros q' o f' g' vars' Hc. exfalso. pose proof (aqcode_range q' o). lia.
  - intros id f' Hc. exfalso. unfold code_subst in Hc. lia.
Qed.

Lemma qentry_restrict : forall s f vars r phi M,
  Den s f phi -> LChain s vars M -> Den s r (restr M phi) ->
  qentry_ok s code_restrict [f; vars] r.
Proof.
  intros s f vars r phi M D V Dr. unfold code_restrict. split; [|split; [|split]].
  - intros q f' vars' Hc. exfalso. pose proof (qcode_range q). lia.
  - intros f' vars' _ Ha. inversion Ha; subst. eauto.
  - intros q' o f' g' vars' Hc. exfalso. pose proof (aqcode_range q' o). lia.
  - intros id f' Hc. exfalso. unfold code_subst in Hc. lia.
Qed.

Lemma qentry_aq : forall s q o f g vars r phi psi L,
  Den s f phi -> Den s g psi -> VChain s vars L ->
  Den s r (qlevs (qf q) L (fun c => eval_bop o (phi c) (psi c))) ->
  qentry_ok s (aqcode q o) [f; g; vars] r.
Proof.
  intros s q o f g vars r phi psi L D D' V Dr. pose proof (aqcode_range q o) as R. split; [|split; [|split]].
  - intros q' f' vars' Hc. exfalso. pose proof (qcode_range q'). lia.
  - intros f' vars' Hc. exfalso. unfold code_restrict in Hc. lia.
  - intros q' o' f' g' vars' Hc Ha. apply aqcode_inj in Hc. destruct Hc as [<- <-].
    inversion Ha; subst. exists phi, psi, L. auto.
  - intros id f' Hc. exfalso. unfold code_subst in Hc. lia.
Qed.

Lemma qentry_subst : forall s id f r pairs phi,
  Sg id = Some pairs -> pairs_ok s pairs -> Den s f phi -> Den s r (psubst s pairs phi) ->
  qentry_ok s (code_subst id) [f] r.
Proof.
  intros s id f r pairs phi Es F D Dr. split; [|split; [|split]].
  - intros q' f' vars' Hc. exfalso. pose proof (qcode_range q'). unfold code_subst in Hc. lia.
  - intros f' vars' Hc. exfalso. unfold code_restrict, code_subst in Hc. lia.
  - intros q' o' f' g' vars' Hc. exfalso. pose proof (aqcode_range q' o'). unfold code_subst in Hc. lia.
  - intros id' f' Hc Ha. apply code_subst_inj in Hc. subst id'. inversion Ha; subst.
    exists pairs, phi. auto.
Qed.

(** ** Results *)

Definition qresult_ok (s : snap) (res : option (snap * C * ref)) (Phi : cfun) : Prop :=
  exists s' c' r, res = Some (s', c', r) /\
    BddOK s' /\ extends s s' /\ QCacheOK s' c' /\ Den s' r Phi.

Lemma qresult_ok_ext : forall s res Phi Phi', qresult_ok s res Phi ->
  (forall c0, bchoice c0 -> Phi c0 = Phi' c0) -> qresult_ok s res Phi'.
Proof.
  intros s res Phi Phi' [s' [c' [r [E [B [X [Q D]]]]]]] Hp.
  exists s', c', r. repeat (split; [assumption|]). apply (den_ext s' r Phi Phi' D Hp).
Qed.

Lemma qresult_ok_here : forall s c r Phi, BddOK s -> QCacheOK s c -> Den s r Phi ->
  qresult_ok s (Some (s, c, r)) Phi.
Proof.
  intros s c r Phi B Q D. exists s, c, r. split; [reflexivity|]. split; [exact B|].
  split; [apply extends_refl|]. split; [exact Q | exact D].
Qed.

Lemma qresult_ok_trans : forall s s1 res Phi, extends s s1 -> qresult_ok s1 res Phi -> qresult_ok s res Phi.
Proof.
  intros s s1 res Phi X [s' [c' [r [E [B' [X' QD]]]]]].
  exists s', c', r. split; [exact E|]. split; [exact B'|]. split; [eapply extends_trans; eauto | exact QD].
Qed.

Lemma qresult_ok_bind : forall s res P (k : snap -> C -> ref -> option (snap * C * ref)) Phi,
  qresult_ok s res P ->
  (forall s1 c1 t, BddOK s1 -> extends s s1 -> QCacheOK s1 c1 -> Den s1 t P -> qresult_ok s1 (k s1 c1 t) Phi) ->
  qresult_ok s (match res with Some (s1, c1, t) => k s1 c1 t | None => None end) Phi.
Proof.
  intros s res P k Phi [s1 [c1 [t [-> [B1 [X1 [Q1 D1]]]]]]] K.
  apply (qresult_ok_trans s s1 _ _ X1). apply K; assumption.
Qed.

Lemma qresult_ok_cached : forall s res Phi code args, qresult_ok s res Phi -> (9 < code)%N ->
  (forall s' r, extends s s' -> Den s' r Phi -> qentry_ok s' code args r) ->
  qresult_ok s (match res with Some (s', c', r) => Some (s', cadd c' code args r, r) | None => None end) Phi.
Proof.
  intros s res Phi code args [s' [c' [r [-> [B' [X [Q' D]]]]]]] Hk Hn.
  exists s', (cadd c' code args r), r. split; [reflexivity|]. split; [exact B'|]. split; [exact X|].
  split; [|exact D]. apply (qcacheok_add s' c' _ _ _ Q' Hk). apply Hn; assumption.
Qed.

Lemma qresult_ok_node : forall s c lvl t e P0 P1 Phi code args,
  BddOK s -> QCacheOK s c -> lvl < nlevels s -> Den s t P0 -> Den s e P1 ->
  indep P0 (S lvl) -> indep P1 (S lvl) ->
  (forall c0, bchoice c0 -> (if Nat.eqb (c0 lvl) 0 then P0 c0 else P1 c0) = Phi c0) ->
  (9 < code)%N ->
  (forall s' r, extends s s' -> Den s' r Phi -> qentry_ok s' code args r) ->
  qresult_ok s (let '(s', h) := mk_node s lvl [E t; E e] in Some (s', cadd c code args (eref h), eref h)) Phi.
Proof.
  intros s c lvl t e P0 P1 Phi code args B Q Hl Dt De I0 I1 HP Hk Hn.
  destruct (mk_node s lvl [E t; E e]) as [s' h] eqn:Em.
  destruct (node_step s lvl t e P0 P1 s' h B Hl Dt De I0 I1 Em) as [B' [X Dh]].
  apply (qresult_ok_cached s (Some (s', c, eref h)) Phi code args); [|exact Hk | exact Hn].
  exists s', c, (eref h). split; [reflexivity|]. split; [exact B'|]. split; [exact X|].
  split; [apply (qcacheok_extends s s' c B X Q) | apply (den_ext s' _ _ _ Dh HP)].
Qed.

(** lifting the theorems of DD/ApplyProofs.v to the larger invariant *)
Lemma qresult_of_result : forall s c res Phi, BddOK s -> QCacheOK s c ->
  result_ok C cget s c res Phi ->
  (forall s' c' r, res = Some (s', c', r) -> serves_from c c') ->
  qresult_ok s res Phi.
Proof.
  intros s c res Phi B Q [s' [c' [r [E [B' [X [O' [D _]]]]]]]] Sf.
  exists s', c', r. split; [exact E|]. split; [exact B'|]. split; [exact X|].
  split; [|exact D]. apply (qcacheok_frame s s' c c' B X Q O' (Sf _ _ _ E)).
Qed.

Lemma q_apply_not : forall s c f phi, BddOK s -> QCacheOK s c -> Den s f phi ->
  qresult_ok s (apply_not C cget cadd (S (nlevels s)) s c f) (fun c0 => negb (phi c0)).
Proof.
  intros s c f phi B Q D. apply (qresult_of_result s c _ _ B Q).
  - apply (apply_not_ok C cget cadd Hlossy _ s c f phi B (proj1 Q) D).
    pose proof (rlevel_le s (bo_wf s B) f). lia.
  - intros s' c' r E. apply (apply_not_frame _ _ _ _ _ _ _ E).
Qed.

Lemma q_apply_bin : forall op s c f g phi psi, BddOK s -> QCacheOK s c -> Den s f phi -> Den s g psi ->
  qresult_ok s (apply_bin gt C cget cadd (S (nlevels s)) s c op f g)
             (fun c0 => eval_bop op (phi c0) (psi c0)).
Proof.
  intros op s c f g phi psi B Q Df Dg. apply (qresult_of_result s c _ _ B Q).
  - apply (apply_bin_ok gt C cget cadd Hlossy op _ s c f g phi psi B (proj1 Q) Df Dg). lia.
  - intros s' c' r E. apply (apply_bin_frame _ _ _ _ _ _ _ _ _ E).
Qed.

Lemma q_apply_ite : forall s c f g h phi psi theta, BddOK s -> QCacheOK s c ->
  Den s f phi -> Den s g psi -> Den s h theta ->
  qresult_ok s (apply_ite gt C cget cadd (S (nlevels s)) s c f g h)
             (fun c0 => if phi c0 then psi c0 else theta c0).
Proof.
  intros s c f g h phi psi theta B Q Df Dg Dh. apply (qresult_of_result s c _ _ B Q).
  - apply (apply_ite_ok gt C cget cadd Hlossy _ s c f g h phi psi theta B (proj1 Q) Df Dg Dh). lia.
  - intros s' c' r E. apply (apply_ite_frame _ _ _ _ _ _ _ _ _ E).
Qed.

End Frame.

Arguments QCacheOK {C}.
Arguments qresult_ok {C}.
Arguments serves_from {C}.
