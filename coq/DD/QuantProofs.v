(** * Soundness of [quant_rec] (exists / forall / unique) of DD/Quant.v

    [quant_rec_ok]: for every BddOK table, every cache satisfying [QCacheOK]
    (of any [lossy] implementation), every operand [f] and every reference
    [vars] (read as a variable set along its then-children, [VChain]), with
    fuel above the height of [f], the algorithm returns (never [None]) a
    well-formed extension of the table, a correct cache, and a reference
    denoting the iterated and / or / xor combination of the cofactors of [f]
    over the levels of [vars] ([qlevs]).  The bridge to [Sem.exists_s] etc.
    over variables is in DD/QuantTopProofs.v. *)

From Coq Require Import List NArith PArith Bool Arith Lia FMapPositive.
From OxiVerif Require Import DD.Table DD.TableProofs DD.Canon DD.Sem DD.Build DD.BuildProofs
  DD.Apply DD.ApplyProofs DD.Quant DD.QuantLemmas.
Import ListNotations.

Lemma qlevs_app : forall q A B phi, qlevs q (A ++ B) phi = qlevs q A (qlevs q B phi).
Proof. intros q A B phi. induction A as [|l r IH]; [reflexivity|]. simpl. rewrite IH. reflexivity. Qed.

(** the function of a terminal depends on no level *)
Lemma den_term_nodep : forall s t phi l, Den s (RT t) phi -> nodep phi l.
Proof.
  intros s t phi l [_ D] c i Hc Hi. apply b2c_inj.
  pose proof (D c Hc) as A. pose proof (D (cupd c l i) (bchoice_upd c l i Hc Hi)) as A'.
  rewrite semk_T in A, A'. congruence.
Qed.

Lemma qf_idem : forall q, is_unique q = false -> forall x, qf q x x = x.
Proof. intros [] Hq []; try discriminate; reflexivity. Qed.

Lemma vchain_T_inv : forall s t L, VChain s (RT t) L -> L = [].
Proof. intros s t L V. inversion V. reflexivity. Qed.

Lemma vchain_N_inv : forall s id nd L, VChain s (RN id) L -> find_node s id = Some nd ->
  exists t e L', nchildren nd = [t; e] /\ L = nlevel nd :: L' /\ VChain s (eref t) L'.
Proof.
  intros s id nd L V En. inversion V as [|id' nd' t e L' En' Ech V']; subst.
  rewrite En in En'. inversion En'; subst nd'. exists t, e, L'. auto.
Qed.

Lemma pop_ok : forall s q vars L lvl Phi, BddOK s -> ref_ok s vars -> VChain s vars L ->
  lvl < nlevels s -> indep Phi lvl ->
  exists vars' L',
    (if is_unique q then Some vars else set_pop (S (nlevels s)) s vars lvl) = Some vars' /\
    ref_ok s vars' /\ VChain s vars' L' /\
    (is_unique q = false -> lvl <= rlevel s vars') /\
    forall c0, bchoice c0 -> qlevs (qf q) L Phi c0 = qlevs (qf q) L' Phi c0.
Proof.
  intros s q vars L lvl Phi B Ov V Hlvl IP. pose proof (bo_wf s B) as H.
  assert (XP : cext Phi) by (apply (cext_indep Phi lvl IP)).
  destruct (is_unique q) eqn:Eq.
  - exists vars, L. split; [reflexivity|]. split; [exact Ov|]. split; [exact V|].
    split; [discriminate | reflexivity].
  - pose proof (rlevel_le s H vars).
    destruct (set_pop_ok s B (S (nlevels s)) vars L lvl Ov V ltac:(lia) ltac:(lia))
      as [vars' [L' [E [O' [V' [Hu [_ [pre [EL Hpre]]]]]]]]].
    exists vars', L'. split; [exact E|]. split; [exact O'|]. split; [exact V'|].
    split; [intros _; exact Hu|]. intros c0 Hc. rewrite EL, qlevs_app.
    apply qlevs_nodep_idem; [apply qf_idem; exact Eq | apply cext_qlevs; exact XP | | exact Hc].
    intros l Hl. apply nodep_qlevs; [exact XP|]. apply (indep_nodep Phi lvl l IP). apply Hpre. exact Hl.
Qed.

Lemma vt_ok : forall s vid vnd L' lvl, BddOK s -> find_node s vid = Some vnd ->
  VChain s (RN vid) L' -> lvl <= nlevel vnd ->
  exists vt' Lr,
    (if Nat.eqb (nlevel vnd) lvl
     then match nchildren vnd with [vt0; _] => Some (eref vt0) | _ => None end
     else Some (RN vid)) = Some vt' /\ ref_ok s vt' /\ VChain s vt' Lr /\ ~ In lvl Lr /\
    (if Nat.eqb lvl (nlevel vnd) then L' = lvl :: Lr else L' = Lr).
Proof.
  intros s vid vnd L' lvl B Evn V' Hvl. pose proof (bo_wf s B) as H.
  destruct (vchain_N_inv s vid vnd L' V' Evn) as [vt [ve [L'' [Evch [EL' Vt]]]]].
  pose proof (vchain_asc s B _ _ V') as Asc. rewrite (rlevel_node s vid vnd Evn), EL' in Asc.
  destruct Asc as [_ Asc].
  rewrite (Nat.eqb_sym lvl (nlevel vnd)). destruct (Nat.eqb_spec (nlevel vnd) lvl) as [Eq|Hne].
  - rewrite Evch. exists (eref vt), L''. split; [reflexivity|].
    split; [apply (children2 s vid vnd vt ve H Evn Evch)|]. split; [exact Vt|].
    split; [apply (asc_notin L'' (S (nlevel vnd)) lvl Asc); lia | rewrite <- Eq; exact EL'].
  - exists (RN vid), L'. split; [reflexivity|]. split; [exists vnd; exact Evn|]. split; [exact V'|].
    split; [|reflexivity]. rewrite EL'. intros [E|Hin]; [lia|].
    pose proof (asc_ge L'' (S (nlevel vnd)) lvl Asc Hin). lia.
Qed.

Section Q.
Variable gt : ref -> ref -> bool.
Variable C : Type.
Variable cget : C -> N -> list ref -> option ref.
Variable cadd : C -> N -> list ref -> ref -> C.
Hypothesis Hlossy : lossy cget cadd.
Variable Sg : N -> option (list (nat * ref)).

Notation QOK := (QCacheOK cget Sg).
Notation qres := (qresult_ok cget Sg).

Lemma quant_rec_S : forall n s c q f vars,
  quant_rec gt C cget cadd (S n) s c q f vars =
    match f with
    | RT _ =>
      if negb (is_unique q) || (match vars with RT _ => true | RN _ => false end)
      then Some (s, c, f)
      else match term_of s false with Some t => Some (s, c, RT t) | None => None end
    | RN fid =>
      match find_node s fid with
      | None => None
      | Some fnode =>
        let flevel := nstored fnode in
        match (if is_unique q then Some vars else set_pop (S (nlevels s)) s vars flevel) with
        | None => None
        | Some (RT _) => Some (s, c, f)
        | Some (RN vid as vars') =>
          match find_node s vid with
          | None => None
          | Some vnode =>
            let vlevel := nstored vnode in
            if is_unique q && Nat.ltb vlevel flevel then
              match term_of s false with Some t => Some (s, c, RT t) | None => None end
            else
              match cget c (qcode q) [f; vars'] with
              | Some h => Some (s, c, h)
              | None =>
                match nchildren fnode,
                      (if Nat.eqb vlevel flevel
                       then match nchildren vnode with [vt; _] => Some (eref vt) | _ => None end
                       else Some vars') with
                | [ft; fe], Some vt =>
                  match quant_rec gt C cget cadd n s c q (eref ft) vt with
                  | None => None
                  | Some (s1, c1, t) =>
                    match quant_rec gt C cget cadd n s1 c1 q (eref fe) vt with
                    | None => None
                    | Some (s2, c2, e) =>
                      if Nat.eqb flevel vlevel then
                        match apply_bin gt C cget cadd (S (nlevels s2)) s2 c2 (qop q) t e with
                        | None => None
                        | Some (s3, c3, res) =>
                          Some (s3, cadd c3 (qcode q) [f; vars'] res, res)
                        end
                      else
                        let '(s3, h) := mk_node s2 flevel [E t; E e] in
                        Some (s3, cadd c2 (qcode q) [f; vars'] (eref h), eref h)
                    end
                  end
                | _, _ => None
                end
              end
          end
        end
      end
    end.
Proof. reflexivity. Qed.

(** the false terminal as a result *)
Lemma q_false : forall s c Phi, BddOK s -> QOK s c -> (forall c0, bchoice c0 -> Phi c0 = false) ->
  qres s (match term_of s false with Some t => Some (s, c, RT t) | None => None end) Phi.
Proof.
  intros s c Phi B Q Hp. destruct (term_of_total s false B) as [t Et]. rewrite Et.
  apply (qresult_ok_here C cget Sg s c (RT t) Phi B Q).
  apply (den_ext s (RT t) (fun _ => false)); [apply den_const; assumption|].
  intros c0 Hc. symmetry. apply Hp. exact Hc.
Qed.

Lemma quant_step : forall q s m vlvl L' Lr Phi code args res0
    (rec1 : snap -> C -> option (snap * C * ref)),
  BddOK s -> m < nlevels s -> indep Phi m -> ~ In m Lr ->
  (if Nat.eqb m vlvl then L' = m :: Lr else L' = Lr) ->
  qres s res0 (qlevs (qf q) Lr (cofn Phi m 0)) ->
  (forall s1 c1, BddOK s1 -> extends s s1 -> QOK s1 c1 ->
     qres s1 (rec1 s1 c1) (qlevs (qf q) Lr (cofn Phi m 1))) ->
  (9 < code)%N ->
  (forall s' r, extends s s' -> Den s' r (qlevs (qf q) L' Phi) -> qentry_ok Sg s' code args r) ->
  qres s
    match res0 with
    | None => None
    | Some (s1, c1, t) =>
      match rec1 s1 c1 with
      | None => None
      | Some (s2, c2, e) =>
        if Nat.eqb m vlvl then
          match apply_bin gt C cget cadd (S (nlevels s2)) s2 c2 (qop q) t e with
          | None => None
          | Some (s3, c3, res) => Some (s3, cadd c3 code args res, res)
          end
        else
          let '(s3, h) := mk_node s2 m [E t; E e] in
          Some (s3, cadd c2 code args (eref h), eref h)
      end
    end
    (qlevs (qf q) L' Phi).
Proof.
  intros q s m vlvl L' Lr Phi code args res0 rec1 B Hm IP Hnin HLr R0 R1 Hk Hn.
  assert (XP : cext Phi) by (apply (cext_indep Phi m IP)).
  refine (qresult_ok_bind C cget Sg s _ _ _ _ R0 _). intros s1 c1 t B1 X1 Q1 D1.
  refine (qresult_ok_bind C cget Sg s1 _ _ _ _ (R1 s1 c1 B1 X1 Q1) _). intros s2 c2 e B2 X2 Q2 D2.
  pose proof (den_extends s1 s2 _ _ B1 X2 D1) as D1'.
  assert (X02 : extends s s2) by (eapply extends_trans; eauto).
  assert (Hn2 : forall s' r, extends s2 s' -> Den s' r (qlevs (qf q) L' Phi) -> qentry_ok Sg s' code args r)
    by (intros s' r X D'; apply Hn; [eapply extends_trans; eauto | exact D']).
  destruct (Nat.eqb_spec m vlvl) as [Eqv|Hnev].
  - apply (qresult_ok_cached C cget cadd Hlossy Sg s2 _ _ _ _); [|exact Hk | exact Hn2].
    apply (qresult_ok_ext C cget Sg s2 _ _ _
             (q_apply_bin gt C cget cadd Hlossy Sg (qop q) s2 c2 t e _ _ B2 Q2 D1' D2)).
    intros c0 Hc. rewrite HLr. simpl qlevs. unfold qlev.
    rewrite !cofn_qlevs by (auto; lia). reflexivity.
  - assert (II : forall i, i < 2 -> indep (qlevs (qf q) Lr (cofn Phi m i)) (S m)).
    { intros i Hi. apply indep_qlevs. apply (indep_cofn Phi m m i IP (le_n _) Hi). }
    apply (qresult_ok_node C cget cadd Hlossy Sg s2 c2 m t e _ _ _ _ _ B2 Q2
             ltac:(rewrite (ext_nlevels _ _ X02); exact Hm) D1' D2 (II 0 ltac:(lia)) (II 1 ltac:(lia)));
      [|exact Hk | exact Hn2].
    intros c0 Hc. rewrite HLr. apply qlevs_shannon; assumption.
Qed.

Theorem quant_rec_ok : forall q fuel s c f vars phi L,
  BddOK s -> QOK s c -> Den s f phi -> ref_ok s vars -> VChain s vars L ->
  nlevels s - rlevel s f < fuel ->
  qres s (quant_rec gt C cget cadd fuel s c q f vars) (qlevs (qf q) L phi).
Proof.
  intros q. induction fuel as [|n IH]; intros s c f vars phi L B Q D Ov V Hfuel; [lia|].
  pose proof (bo_wf s B) as H. pose proof (den_cext s f phi H D) as Xp.
  rewrite quant_rec_S. destruct f as [t|fid].
  - (* terminal *)
    assert (Hnd : forall l, nodep phi l) by (intros l; apply (den_term_nodep s t phi l D)).
    destruct (negb (is_unique q) || match vars with RT _ => true | RN _ => false end) eqn:Ec.
    + apply (qresult_ok_here C cget Sg s c _ _ B Q). apply (den_ext s (RT t) phi _ D).
      intros c0 Hc. apply orb_true_iff in Ec. destruct Ec as [Eq|Ev].
      * symmetry. apply qlevs_nodep_idem; auto. apply qf_idem. destruct (is_unique q); [discriminate | reflexivity].
      * destruct vars as [tv|vid]; [|discriminate]. rewrite (vchain_T_inv s tv L V). reflexivity.
    + apply orb_false_iff in Ec. destruct Ec as [Eq Ev]. apply negb_false_iff in Eq.
      destruct vars as [tv|vid]; [discriminate|].
      destruct Ov as [vnd Evn]. destruct (vchain_N_inv s vid vnd L V Evn) as [vt [ve [L' [_ [-> _]]]]].
      apply (q_false s c _ B Q). intros c0 Hc. apply (qlevs_unique_nodep q _ L' phi Eq Xp (Hnd _) c0 Hc).
  - (* inner node *)
    destruct (proj1 D) as [fnd Ef]. rewrite Ef. cbv zeta. rewrite (wf_stored s H fid fnd Ef).
    rewrite (rlevel_node s fid fnd Ef) in Hfuel.
    destruct (den_node s fid fnd phi B D Ef) as [Hlv [Ip [ft [fe [Ech [Dft [Dfe [Lft Lfe]]]]]]]].
    set (lvl := nlevel fnd) in *.
    destruct (pop_ok s q vars L lvl phi B Ov V Hlv Ip) as [vars' [L' [Epop [Ov' [V' [Hge HL]]]]]]. rewrite Epop.
    apply (qresult_ok_ext C cget Sg s _ (qlevs (qf q) L' phi));
      [|intros c0 Hc; symmetry; apply HL; exact Hc].
    clear HL V Ov L vars Epop.
    destruct vars' as [tv|vid].
    { rewrite (vchain_T_inv s tv L' V'). apply (qresult_ok_here C cget Sg s c _ _ B Q). exact D. }
    destruct Ov' as [vnd Evn]. rewrite Evn. rewrite (wf_stored s H vid vnd Evn).
    destruct (vchain_N_inv s vid vnd L' V' Evn) as [vt [ve [L'' [_ [EL' _]]]]].
    set (vlvl := nlevel vnd) in *.
    destruct (is_unique q && Nat.ltb vlvl lvl) eqn:Eu.
    { apply andb_true_iff in Eu. destruct Eu as [Eq Hlt]. apply Nat.ltb_lt in Hlt.
      apply (q_false s c _ B Q). intros c0 Hc. rewrite EL'.
      apply (qlevs_unique_nodep q vlvl L'' phi Eq Xp (indep_nodep phi lvl vlvl Ip Hlt) c0 Hc). }
    assert (Hvl : lvl <= vlvl).
    { destruct (is_unique q) eqn:Eq.
      - simpl in Eu. apply Nat.ltb_ge in Eu. exact Eu.
      - specialize (Hge eq_refl). rewrite (rlevel_node s vid vnd Evn) in Hge. exact Hge. }
    clear Eu Hge.
    destruct (cget c (qcode q) [RN fid; RN vid]) as [h|] eqn:Ecache.
    { (* cache hit *)
      destruct (proj1 (proj2 Q _ _ _ Ecache) q (RN fid) (RN vid) eq_refl eq_refl) as [phi0 [L0 [D0 [V0 Dh]]]].
      apply (qresult_ok_here C cget Sg s c _ _ B Q).
      rewrite (vchain_fun s _ _ _ V0 V') in Dh.
      apply (den_ext s h _ _ Dh). apply qlevs_ext. apply (den_unique s _ phi0 phi D0 D). }
    rewrite Ech.
    destruct (vt_ok s vid vnd L' lvl B Evn V' Hvl) as [vt' [Lr [Evt [Ovt [Vr [Hnin HLr]]]]]].
    fold vlvl in Evt, HLr. rewrite Evt.
    apply (quant_step q s lvl vlvl L' Lr phi (qcode q) [RN fid; RN vid] _
             (fun s1 c1 => quant_rec gt C cget cadd n s1 c1 q (eref fe) vt') B Hlv Ip Hnin HLr).
    + apply (IH s c (eref ft) vt' _ Lr B Q Dft Ovt Vr). lia.
    + intros s1 c1 B1 X1 Q1.
      apply (IH s1 c1 (eref fe) vt' _ Lr B1 Q1 (den_extends s s1 _ _ B X1 Dfe) (ext_ref_ok _ _ _ X1 Ovt)
               (vchain_extends _ _ _ _ X1 Vr) (fuel_extends s s1 _ n X1 (proj1 Dfe) ltac:(lia))).
    + apply qcode_gt.
    + intros s' r X' D'.
      apply (qentry_quant Sg s' q (RN fid) (RN vid) r phi L');
        [apply (den_extends s s' _ _ B X' D) | apply (vchain_extends _ _ _ _ X' V') | exact D'].
Qed.

End Q.
