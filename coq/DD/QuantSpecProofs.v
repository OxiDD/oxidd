(** * Spec-layer laws of quantification, restriction and substitution (DD/Sem.v)

    Everything here is about the mathematical objects of DD/Sem.v only
    ([quant], [exists_s], [forall_s], [unique_s], [restrict_s], [subst_s]),
    for every assignment and every variable list:

    - [quant_perm]: the order of the variable list is irrelevant (or, and, xor);
    - [quant_dup], [quant_same_elems]: duplicates are irrelevant (or, and);
      [unique_dup]: a duplicate makes the exclusive-or quantifier false;
    - [forall_exists_dual], [exists_forall_dual], [unique_neg];
    - [quant_not_support], [unique_not_support]: quantifying variables outside
      the support;
    - [restrict_s_over], [over_spec], [restrict_s_perm], [restrict_s_indep]:
      [restrict_s] is the cofactor w.r.t. the partial assignment;
    - [subst_s_var], [subst_s_lift2], [subst_s_id], [subst_s_unused],
      [subst_s_shannon]: simultaneous substitution;
    - [bcdd_dispatch_spec], [bcdd_unique_dispatch_spec]: the identities behind
      the dispatch tables of complement_edge/apply_rec.rs
      ([apply_quant_dispatch], [apply_quant_unique_dispatch]).

    Coq has no function extensionality, so the laws that move an assignment
    update past another one are stated for functions that respect pointwise
    equality of assignments ([aext]); every function denoted by a decision
    diagram does (DD/QuantTopProofs.v, [aext_bfun_of]). *)

From Coq Require Import List Bool Arith Lia Permutation.
From OxiVerif Require Import DD.Sem DD.Quant.
Import ListNotations.

(** ** Assignments up to pointwise equality *)

Definition aeq (a a' : asg) : Prop := forall v, a v = a' v.
Definition aext (f : bfun) : Prop := forall a a', aeq a a' -> f a = f a'.

Lemma aeq_refl : forall a, aeq a a.
Proof. intros a v. reflexivity. Qed.

Lemma aeq_upd : forall a a' v b, aeq a a' -> aeq (upd a v b) (upd a' v b).
Proof. intros a a' v b E x. unfold upd. destruct (Nat.eqb x v); [reflexivity | apply E]. Qed.

Lemma aupd_comm : forall a v w b b', v <> w -> aeq (upd (upd a v b) w b') (upd (upd a w b') v b).
Proof.
  intros a v w b b' Hne x. unfold upd.
  destruct (Nat.eqb_spec x w) as [Ew|Hw]; destruct (Nat.eqb_spec x v) as [Ev|Hv]; try reflexivity.
  subst. contradiction.
Qed.

Lemma aupd_upd : forall a v b b', aeq (upd (upd a v b) v b') (upd a v b').
Proof. intros a v b b' x. unfold upd. destruct (Nat.eqb x v); reflexivity. Qed.

Lemma aupd_self : forall a v, aeq (upd a v (a v)) a.
Proof. intros a v x. unfold upd. destruct (Nat.eqb_spec x v) as [->|]; reflexivity. Qed.

Lemma aupd_at : forall a v b, upd a v b v = b.
Proof. intros a v b. unfold upd. rewrite Nat.eqb_refl. reflexivity. Qed.

Lemma aupd_other : forall a v b x, x <> v -> upd a v b x = a x.
Proof. intros a v b x Hne. unfold upd. destruct (Nat.eqb_spec x v); [contradiction | reflexivity]. Qed.

Lemma aext_cof : forall f v b, aext f -> aext (cof f v b).
Proof. intros f v b X a a' E. unfold cof. apply X. apply aeq_upd. exact E. Qed.

Lemma aext_lift1 : forall u f, aext f -> aext (lift1 u f).
Proof. intros u f X a a' E. unfold lift1. rewrite (X a a' E). reflexivity. Qed.

Lemma aext_lift2 : forall o f g, aext f -> aext g -> aext (lift2 o f g).
Proof. intros o f g X Y a a' E. unfold lift2. rewrite (X a a' E), (Y a a' E). reflexivity. Qed.

Lemma aext_var : forall v, aext (var_s v).
Proof. intros v a a' E. apply E. Qed.

Lemma aext_const : forall b, aext (const_s b).
Proof. intros b a a' E. reflexivity. Qed.

(** ** Algebraic properties of the combining connective *)

Definition medial (q : bool -> bool -> bool) : Prop :=
  forall a b c d, q (q a b) (q c d) = q (q a c) (q b d).
Definition idem (q : bool -> bool -> bool) : Prop := forall x, q x x = x.

Lemma medial_orb : medial orb.  Proof. intros [] [] [] []; reflexivity. Qed.
Lemma medial_andb : medial andb. Proof. intros [] [] [] []; reflexivity. Qed.
Lemma medial_xorb : medial xorb. Proof. intros [] [] [] []; reflexivity. Qed.
Lemma idem_orb : idem orb.   Proof. intros []; reflexivity. Qed.
Lemma idem_andb : idem andb. Proof. intros []; reflexivity. Qed.

(** ** [quant]: congruence and extensionality *)

Lemma quant_cons : forall q v r f a,
  quant q (v :: r) f a = q (quant q r f (upd a v true)) (quant q r f (upd a v false)).
Proof. reflexivity. Qed.

Lemma quant_ext : forall q vs f g, (forall a, f a = g a) ->
  forall a, quant q vs f a = quant q vs g a.
Proof.
  intros q vs f g E. induction vs as [|v r IH]; intros a; [apply E|].
  rewrite !quant_cons, !IH. reflexivity.
Qed.

Lemma aext_quant : forall q vs f, aext f -> aext (quant q vs f).
Proof.
  intros q vs f X. induction vs as [|v r IH]; [exact X|].
  intros a a' E. rewrite !quant_cons.
  rewrite (IH _ _ (aeq_upd a a' v true E)), (IH _ _ (aeq_upd a a' v false E)). reflexivity.
Qed.

(** ** Order independence *)

Lemma quant_swap : forall q v w r f, medial q -> aext f ->
  forall a, quant q (v :: w :: r) f a = quant q (w :: v :: r) f a.
Proof.
  intros q v w r f M X a. pose proof (aext_quant q r f X) as G.
  rewrite !quant_cons.
  destruct (Nat.eq_dec v w) as [->|Hne]; [reflexivity|].
  rewrite M.
  rewrite (G _ _ (aupd_comm a v w true true Hne)), (G _ _ (aupd_comm a v w true false Hne)),
          (G _ _ (aupd_comm a v w false true Hne)), (G _ _ (aupd_comm a v w false false Hne)).
  reflexivity.
Qed.

Theorem quant_perm : forall q vs vs' f, medial q -> aext f -> Permutation vs vs' ->
  forall a, quant q vs f a = quant q vs' f a.
Proof.
  intros q vs vs' f M X P. induction P as [|x l l' P IH|x y l|l l' l'' P1 IH1 P2 IH2]; intros a.
  - reflexivity.
  - rewrite !quant_cons, !IH. reflexivity.
  - apply quant_swap; assumption.
  - rewrite IH1. apply IH2.
Qed.

(** ** Quantified variables no longer matter; duplicates *)

Lemma quant_indep_in : forall q vs f v b, aext f -> In v vs ->
  forall a, quant q vs f (upd a v b) = quant q vs f a.
Proof.
  intros q vs f v b X. induction vs as [|w r IH]; intros Hin a; [destruct Hin|].
  pose proof (aext_quant q r f X) as G. rewrite !quant_cons.
  destruct (Nat.eq_dec w v) as [->|Hne].
  - rewrite (G _ _ (aupd_upd a v b true)), (G _ _ (aupd_upd a v b false)). reflexivity.
  - destruct Hin as [E|Hin]; [contradiction|].
    assert (Hne' : v <> w) by congruence.
    rewrite (G _ _ (aupd_comm a v w b true Hne')), (G _ _ (aupd_comm a v w b false Hne')).
    rewrite !(IH Hin). reflexivity.
Qed.

Theorem quant_dup : forall q v vs f, idem q -> aext f -> In v vs ->
  forall a, quant q (v :: vs) f a = quant q vs f a.
Proof.
  intros q v vs f I X Hin a. rewrite quant_cons.
  rewrite !(quant_indep_in q vs f v _ X Hin). apply I.
Qed.

(** for the exclusive-or quantifier a repeated variable gives the constant false *)
Theorem unique_dup : forall v vs f, aext f -> In v vs ->
  forall a, unique_s (v :: vs) f a = false.
Proof.
  intros v vs f X Hin a. unfold unique_s. rewrite quant_cons.
  rewrite !(quant_indep_in xorb vs f v _ X Hin). apply xorb_nilpotent.
Qed.

Lemma quant_nodup : forall q vs f, idem q -> aext f ->
  forall a, quant q (nodup Nat.eq_dec vs) f a = quant q vs f a.
Proof.
  intros q vs f I X. induction vs as [|v r IH]; intros a; [reflexivity|].
  simpl nodup. destruct (in_dec Nat.eq_dec v r) as [Hin|Hnin].
  - rewrite IH. symmetry. apply quant_dup; assumption.
  - rewrite !quant_cons, !IH. reflexivity.
Qed.

(** or / and: only the *set* of listed variables matters *)
Theorem quant_same_elems : forall q vs vs' f, medial q -> idem q -> aext f ->
  (forall v, In v vs <-> In v vs') ->
  forall a, quant q vs f a = quant q vs' f a.
Proof.
  intros q vs vs' f M I X E a.
  rewrite <- (quant_nodup q vs f I X), <- (quant_nodup q vs' f I X).
  apply quant_perm; try assumption.
  apply NoDup_Permutation; try apply NoDup_nodup.
  intros v. rewrite !nodup_In. apply E.
Qed.

Theorem exists_perm : forall vs vs' f, aext f -> Permutation vs vs' ->
  forall a, exists_s vs f a = exists_s vs' f a.
Proof. intros. apply quant_perm; auto using medial_orb. Qed.

Theorem forall_perm : forall vs vs' f, aext f -> Permutation vs vs' ->
  forall a, forall_s vs f a = forall_s vs' f a.
Proof. intros. apply quant_perm; auto using medial_andb. Qed.

Theorem unique_perm : forall vs vs' f, aext f -> Permutation vs vs' ->
  forall a, unique_s vs f a = unique_s vs' f a.
Proof. intros. apply quant_perm; auto using medial_xorb. Qed.

Theorem exists_same_elems : forall vs vs' f, aext f -> (forall v, In v vs <-> In v vs') ->
  forall a, exists_s vs f a = exists_s vs' f a.
Proof. intros. apply quant_same_elems; auto using medial_orb, idem_orb. Qed.

Theorem forall_same_elems : forall vs vs' f, aext f -> (forall v, In v vs <-> In v vs') ->
  forall a, forall_s vs f a = forall_s vs' f a.
Proof. intros. apply quant_same_elems; auto using medial_andb, idem_andb. Qed.

(** ** Variables outside the support *)

Definition nodep_s (f : bfun) (v : nat) : Prop := forall a b, f (upd a v b) = f a.

Theorem quant_not_support : forall q vs f, idem q -> (forall v, In v vs -> nodep_s f v) ->
  forall a, quant q vs f a = f a.
Proof.
  intros q vs f I. induction vs as [|v r IH]; intros Hs a; [reflexivity|].
  rewrite quant_cons, !IH by (intros w Hw; apply Hs; right; exact Hw).
  rewrite !(Hs v (or_introl eq_refl)). apply I.
Qed.

Lemma nodep_quant : forall q vs f v, aext f -> nodep_s f v -> nodep_s (quant q vs f) v.
Proof.
  intros q vs f v X Hn. induction vs as [|w r IH]; [exact Hn|].
  intros a b. pose proof (aext_quant q r f X) as G. rewrite !quant_cons.
  destruct (Nat.eq_dec v w) as [->|Hne].
  - rewrite (G _ _ (aupd_upd a w b true)), (G _ _ (aupd_upd a w b false)). reflexivity.
  - rewrite (G _ _ (aupd_comm a v w b true Hne)), (G _ _ (aupd_comm a v w b false Hne)), !IH.
    reflexivity.
Qed.

(** unique quantification of a variable the function does not depend on: [f xor f] *)
Theorem unique_not_support : forall v vs f, aext f -> nodep_s f v ->
  forall a, unique_s (v :: vs) f a = false.
Proof.
  intros v vs f X Hn a. unfold unique_s. rewrite quant_cons.
  rewrite !(nodep_quant xorb vs f v X Hn). apply xorb_nilpotent.
Qed.

(** ** Duality *)

Lemma quant_dual : forall q q' vs f, (forall x y, q' x y = negb (q (negb x) (negb y))) ->
  forall a, quant q' vs f a = negb (quant q vs (lift1 negb f) a).
Proof.
  intros q q' vs f D. induction vs as [|v r IH]; intros a.
  - unfold lift1. simpl. rewrite negb_involutive. reflexivity.
  - rewrite !quant_cons, D, !IH, !negb_involutive. reflexivity.
Qed.

Theorem forall_exists_dual : forall vs f a,
  forall_s vs f a = negb (exists_s vs (lift1 negb f) a).
Proof. intros. apply quant_dual. intros [] []; reflexivity. Qed.

Theorem exists_forall_dual : forall vs f a,
  exists_s vs f a = negb (forall_s vs (lift1 negb f) a).
Proof. intros. apply quant_dual. intros [] []; reflexivity. Qed.

(** the exclusive-or quantifier absorbs a negation of its operand (for a
    non-empty variable list): [(~g1) xor (~g0) = g1 xor g0] *)
Theorem unique_neg : forall v vs f a,
  unique_s (v :: vs) (lift1 negb f) a = unique_s (v :: vs) f a.
Proof.
  intros v vs f. unfold unique_s. revert v. induction vs as [|w r IH]; intros v a.
  - simpl. unfold cof, lift1. destruct (f (upd a v true)), (f (upd a v false)); reflexivity.
  - rewrite (quant_cons xorb v (w :: r)), (quant_cons xorb v (w :: r) f), !IH. reflexivity.
Qed.

(** ** Restriction = cofactor w.r.t. the partial assignment *)

(** the assignment overridden by a list of literals (later entries win) *)
Fixpoint over (lits : list (nat * bool)) (a : asg) : asg :=
  match lits with
  | [] => a
  | (v, b) :: r => over r (upd a v b)
  end.

Theorem restrict_s_over : forall lits f a, restrict_s lits f a = f (over lits a).
Proof.
  induction lits as [|[v b] r IH]; intros f a; [reflexivity|].
  simpl. unfold cof. apply IH.
Qed.

Lemma over_notin : forall lits a x, ~ In x (map fst lits) -> over lits a x = a x.
Proof.
  induction lits as [|[v b] r IH]; intros a x Hn; [reflexivity|].
  simpl in *. rewrite IH by tauto. apply aupd_other. intros ->. tauto.
Qed.

(** with every variable listed at most once: listed variables get the listed
    value, all others keep theirs *)
Theorem over_spec : forall lits a x, NoDup (map fst lits) ->
  over lits a x = match assoc_nat lits x with Some b => b | None => a x end.
Proof.
  induction lits as [|[v b] r IH]; intros a x Hnd; [reflexivity|].
  simpl in *. inversion Hnd as [|? ? Hv Hr]; subst.
  destruct (Nat.eqb_spec v x) as [->|Hne].
  - rewrite over_notin by exact Hv. apply aupd_at.
  - rewrite IH by exact Hr. destruct (assoc_nat r x); [reflexivity|].
    apply aupd_other. congruence.
Qed.

Lemma restrict_s_ext : forall lits f g, (forall a, f a = g a) ->
  forall a, restrict_s lits f a = restrict_s lits g a.
Proof. intros lits f g E a. rewrite !restrict_s_over. apply E. Qed.

Lemma aeq_over : forall lits a a', aeq a a' -> aeq (over lits a) (over lits a').
Proof.
  induction lits as [|[v b] r IH]; intros a a' E; [exact E|].
  simpl. apply IH. apply aeq_upd. exact E.
Qed.

Lemma aext_restrict : forall lits f, aext f -> aext (restrict_s lits f).
Proof.
  intros lits f X a a' E. rewrite !restrict_s_over. apply X. apply aeq_over. exact E.
Qed.

Lemma assoc_nat_perm : forall (l l' : list (nat * bool)) x, NoDup (map fst l) -> Permutation l l' ->
  assoc_nat l x = assoc_nat l' x.
Proof.
  intros l l' x Hnd P. revert Hnd.
  induction P as [|[v b] l l' P IH|[v b] [w b'] l|l l' l'' P1 IH1 P2 IH2]; intros Hnd.
  - reflexivity.
  - simpl in *. inversion Hnd; subst. rewrite IH by assumption. reflexivity.
  - simpl in *. inversion Hnd as [|? ? Hv Hr]; subst.
    destruct (Nat.eqb_spec w x) as [->|]; destruct (Nat.eqb_spec v x) as [->|]; try reflexivity.
    exfalso. apply Hv. left. reflexivity.
  - rewrite IH1 by exact Hnd. apply IH2.
    eapply Permutation_NoDup; [apply Permutation_map; exact P1 | exact Hnd].
Qed.

(** the order of the literals is irrelevant *)
Theorem restrict_s_perm : forall lits lits' f, aext f -> NoDup (map fst lits) ->
  Permutation lits lits' -> forall a, restrict_s lits f a = restrict_s lits' f a.
Proof.
  intros lits lits' f X Hnd P a. rewrite !restrict_s_over. apply X. intros x.
  assert (Hnd' : NoDup (map fst lits'))
    by (eapply Permutation_NoDup; [apply Permutation_map; exact P | exact Hnd]).
  rewrite !over_spec by assumption. rewrite (assoc_nat_perm lits lits' x Hnd P). reflexivity.
Qed.

(** a restricted variable no longer matters *)
Theorem restrict_s_indep : forall lits f v b, aext f -> NoDup (map fst lits) ->
  In v (map fst lits) -> forall a, restrict_s lits f (upd a v b) = restrict_s lits f a.
Proof.
  intros lits f v b X Hnd Hin a. rewrite !restrict_s_over. apply X. intros x.
  rewrite !over_spec by assumption.
  destruct (assoc_nat lits x) eqn:E; [reflexivity|].
  apply aupd_other. intros ->.
  clear - Hin E. induction lits as [|[w b'] r IH]; [destruct Hin|].
  simpl in *. destruct (Nat.eqb_spec w v); [discriminate|]. destruct Hin; [contradiction | auto].
Qed.

(** the empty cube and single literals *)
Theorem restrict_s_nil : forall f a, restrict_s [] f a = f a.
Proof. reflexivity. Qed.

Theorem restrict_s_one : forall v b f a, restrict_s [(v, b)] f a = cof f v b a.
Proof. reflexivity. Qed.

(** Shannon expansion links the quantifiers to restriction *)
Theorem quant_one_restrict : forall q v f a,
  quant q [v] f a = q (restrict_s [(v, true)] f a) (restrict_s [(v, false)] f a).
Proof. reflexivity. Qed.

(** ** Substitution *)

(** the assignment under which [subst_s sub f] evaluates [f] *)
Definition sub_asg (sub : list (nat * bfun)) (a : asg) : asg :=
  fun v => match assoc_nat sub v with Some g => g a | None => a v end.

Theorem subst_s_sub_asg : forall sub f a, subst_s sub f a = f (sub_asg sub a).
Proof. reflexivity. Qed.

(** unlisted variables are untouched, listed ones read their replacement under
    the *original* assignment (simultaneity) *)
Theorem subst_s_var : forall sub v a,
  subst_s sub (var_s v) a = match assoc_nat sub v with Some g => g a | None => a v end.
Proof. reflexivity. Qed.

Theorem subst_s_const : forall sub b a, subst_s sub (const_s b) a = b.
Proof. reflexivity. Qed.

Theorem subst_s_lift1 : forall sub u f a, subst_s sub (lift1 u f) a = lift1 u (subst_s sub f) a.
Proof. reflexivity. Qed.

Theorem subst_s_lift2 : forall sub o f g a,
  subst_s sub (lift2 o f g) a = lift2 o (subst_s sub f) (subst_s sub g) a.
Proof. reflexivity. Qed.

Theorem subst_s_ite : forall sub f g h a,
  subst_s sub (ite_s f g h) a = ite_s (subst_s sub f) (subst_s sub g) (subst_s sub h) a.
Proof. reflexivity. Qed.

Lemma subst_s_ext : forall sub f g, (forall a, f a = g a) -> forall a, subst_s sub f a = subst_s sub g a.
Proof. intros sub f g E a. apply E. Qed.

(** identity replacement *)
Theorem subst_s_id : forall sub f, aext f ->
  (forall v g, assoc_nat sub v = Some g -> forall a, g a = a v) ->
  forall a, subst_s sub f a = f a.
Proof.
  intros sub f X Hid a. unfold subst_s. apply X. intros v. cbv beta.
  match goal with |- match ?x with _ => _ end = _ => destruct x as [g|] eqn:E end;
    [apply (Hid v g E) | reflexivity].
Qed.

Theorem subst_s_nil : forall f a, subst_s [] f a = f a.
Proof. reflexivity. Qed.

(** a replacement for a variable outside the support is irrelevant *)
Theorem subst_s_unused : forall sub f v g, aext f -> nodep_s f v ->
  forall a, subst_s ((v, g) :: sub) f a = subst_s sub f a.
Proof.
  intros sub f v g X Hn a. unfold subst_s.
  set (a1 := fun x => match assoc_nat ((v, g) :: sub) x with Some h => h a | None => a x end).
  set (a2 := fun x => match assoc_nat sub x with Some h => h a | None => a x end).
  rewrite <- (Hn a2 (g a)). apply X. intros x. unfold a1, a2, upd. simpl.
  rewrite (Nat.eqb_sym v x). destruct (Nat.eqb x v); reflexivity.
Qed.

(** the recursion scheme of the algorithm: Shannon expansion on one variable,
    the variable's replacement (or the variable itself) selecting the branch *)
Theorem subst_s_shannon : forall sub f v, aext f -> forall a,
  subst_s sub f a =
  if (match assoc_nat sub v with Some g => g a | None => a v end)
  then subst_s sub (cof f v true) a else subst_s sub (cof f v false) a.
Proof.
  intros sub f v X a. unfold subst_s, cof.
  set (a' := fun x => match assoc_nat sub x with Some g => g a | None => a x end).
  change (match assoc_nat sub v with Some g => g a | None => a v end) with (a' v).
  destruct (a' v) eqn:E; apply X; intros x; symmetry; rewrite <- E; apply aupd_self.
Qed.

(** swapping two variables is not the same as two successive single
    substitutions: the replacements are read under the original assignment *)
Example subst_s_swap : forall f a, aext f ->
  subst_s [(0, var_s 1); (1, var_s 0)] f a =
  f (fun v => match v with 0 => a 1 | 1 => a 0 | _ => a v end).
Proof. intros f a X. unfold subst_s. apply X. intros [|[|v]]; reflexivity. Qed.

(** ** Apply-and-quantify: the plain BDD forms are the definition, the
    complement-edge forms go through the dispatch tables *)

Definition qfun (q : quantifier) : bool -> bool -> bool :=
  match q with QForall => andb | QExists => orb | QUnique => xorb end.

Lemma qfun_qop : forall q x y, qfun q x y = eval_bop (qop q) x y.
Proof. intros [] x y; reflexivity. Qed.

(** what [apply_forall] / [apply_exists] / [apply_unique] must return *)
Definition apply_quant_s (q : quantifier) (o : bop) (vs : list nat) (f g : bfun) : bfun :=
  quant (qfun q) vs (lift2 o f g).

(** the dispatch tables [bcdd_dispatch] / [bcdd_unique_dispatch] are in DD/Quant.v *)

Definition cneg (b : bool) (f : bfun) : bfun := if b then lift1 negb f else f.

Definition run_row (r : drow) (vs : list nat) (f g : bfun) : bfun :=
  cneg (d_nres r) (apply_quant_s (d_q r) (d_op r) vs (cneg (d_nf r) f) (cneg (d_ng r) g)).

Theorem bcdd_dispatch_spec : forall q o vs f g a, q <> QUnique ->
  run_row (bcdd_dispatch q o) vs f g a = apply_quant_s q o vs f g a.
Proof.
  intros q o vs f g a Hq. unfold run_row, apply_quant_s.
  assert (Dual : forall h a0, lift1 negb (quant (qfun (qdual q)) vs h) a0
                              = quant (qfun q) vs (lift1 negb h) a0).
  { intros h a0. unfold lift1 at 1.
    rewrite (quant_dual (qfun (qdual q)) (qfun q))
      by (destruct q; [| |contradiction]; intros [] []; reflexivity).
    f_equal. apply quant_ext. intros x. unfold lift1. rewrite negb_involutive. reflexivity. }
  destruct o; simpl bcdd_dispatch; simpl d_q; simpl d_op; simpl d_nf; simpl d_ng; simpl d_nres;
    unfold cneg; try rewrite Dual; apply quant_ext; intros x; unfold lift1, lift2; simpl;
    destruct (f x), (g x); reflexivity.
Qed.

Theorem bcdd_unique_dispatch_spec : forall o vs f g a,
  run_row (bcdd_unique_dispatch o) vs f g a = apply_quant_s QUnique o vs f g a.
Proof.
  intros o vs f g a. unfold run_row, apply_quant_s.
  destruct o; simpl bcdd_unique_dispatch; simpl d_q; simpl d_op; simpl d_nf; simpl d_ng; simpl d_nres;
    unfold cneg; apply quant_ext; intros x; unfold lift1, lift2; simpl;
    destruct (f x), (g x); reflexivity.
Qed.
