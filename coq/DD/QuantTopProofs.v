(** * The quantification / restriction / substitution algorithms against the
      spec layer (DD/Sem.v)

    - [cube_chain]: a reference that *denotes* a cube of literals (distinct
      levels) has exactly that cube as its literal chain, sorted by level
      (canonicity), so the structural reading of the algorithms ([VChain],
      [LChain]) is the semantic one;
    - bridges from level-indexed choices to variable-indexed assignments:
      [quant_bridge], [restr_bridge], [psubst_bridge];
    - the soundness theorems of the entry points in terms of [bfun_of] and
      [Sem.quant] / [exists_s] / [forall_s] / [unique_s] / [restrict_s] /
      [subst_s] / [lift2]: [quant_edge_sound], [restrict_edge_sound],
      [apply_quant_edge_sound], [substitute_edge_sound]. *)

From Coq Require Import List NArith PArith Bool Arith Lia FMapPositive Permutation.
From OxiVerif Require Import Base.ListFacts DD.Table DD.TableProofs DD.Canon DD.Sem DD.Build DD.BuildProofs
  DD.Apply DD.ApplyProofs DD.ApplyEvalProofs DD.Quant DD.QuantSpecProofs DD.QuantLemmas
  DD.QuantProofs DD.RestrictProofs DD.SubstProofs DD.ApplyQuantProofs.
Import ListNotations.

(** ** Cubes of level literals *)

Definition cubeL (M : list (nat * bool)) : cfun :=
  fun c => forallb (fun p : nat * bool => Nat.eqb (c (fst p)) (lit_ix (snd p))) M.

(** a choice satisfying the cube *)
Fixpoint csat (M : list (nat * bool)) (l : nat) : nat :=
  match M with
  | [] => 0
  | (m, b) :: r => if Nat.eqb l m then lit_ix b else csat r l
  end.

Lemma csat_bchoice : forall M, bchoice (csat M).
Proof.
  induction M as [|[m b] r IH]; intros l; simpl; [lia|].
  destruct (Nat.eqb l m); [apply lit_ix_lt | apply IH].
Qed.

Lemma cubeL_reads : forall M c c', (forall p, In p M -> c (fst p) = c' (fst p)) ->
  cubeL M c = cubeL M c'.
Proof.
  induction M as [|p r IH]; intros c c' E; [reflexivity|].
  unfold cubeL in *. simpl. rewrite (E p (or_introl eq_refl)). f_equal.
  apply IH. intros q Hq. apply E. right. exact Hq.
Qed.

Lemma cubeL_sat : forall M, NoDup (map fst M) -> cubeL M (csat M) = true.
Proof.
  induction M as [|[m b] r IH]; intros Hnd; [reflexivity|].
  simpl in Hnd. inversion Hnd as [|? ? Hn Hr]; subst.
  unfold cubeL. simpl. rewrite Nat.eqb_refl, Nat.eqb_refl. simpl.
  change (cubeL r (fun l => if Nat.eqb l m then lit_ix b else csat r l) = true).
  rewrite (cubeL_reads r _ (csat r)); [apply IH; exact Hr|].
  intros p Hp. destruct (Nat.eqb_spec (fst p) m) as [E|]; [|reflexivity].
  exfalso. apply Hn. rewrite <- E. apply in_map. exact Hp.
Qed.

Lemma cubeL_false : forall M c l b, In (l, b) M -> c l <> lit_ix b -> cubeL M c = false.
Proof.
  intros M c l b Hin Hne. destruct (cubeL M c) eqn:E; [|reflexivity]. exfalso.
  unfold cubeL in E. rewrite forallb_forall in E. specialize (E (l, b) Hin). simpl in E.
  apply Nat.eqb_eq in E. contradiction.
Qed.

Lemma cubeL_perm : forall M M' c, Permutation M M' -> cubeL M c = cubeL M' c.
Proof.
  intros M M' c P. induction P as [|x l l' P IH|x y l|l l' l'' P1 IH1 P2 IH2].
  - reflexivity.
  - unfold cubeL in *. simpl. rewrite IH. reflexivity.
  - unfold cubeL. simpl. rewrite !andb_assoc, (andb_comm (Nat.eqb _ _)). reflexivity.
  - congruence.
Qed.

Lemma cubeL_cons : forall l b M c,
  cubeL ((l, b) :: M) c = Nat.eqb (c l) (lit_ix b) && cubeL M c.
Proof. reflexivity. Qed.

(** flipping a literal of a satisfying choice *)
Lemma cube_flip : forall M l b, NoDup (map fst M) -> In (l, b) M ->
  let c1 := csat M in let c2 := cupd c1 l (1 - lit_ix b) in
  bchoice c1 /\ bchoice c2 /\ cubeL M c1 = true /\ cubeL M c2 = false /\
  forall x, x <> l -> c1 x = c2 x.
Proof.
  intros M l b Hnd Hin c1 c2. pose proof (csat_bchoice M) as Hc1.
  split; [exact Hc1|]. split; [apply bchoice_upd; [exact Hc1 | destruct b; simpl; lia]|].
  split; [apply cubeL_sat; exact Hnd|].
  split.
  - apply (cubeL_false M c2 l b Hin). unfold c2, cupd. rewrite Nat.eqb_refl. destruct b; simpl; lia.
  - intros x Hx. unfold c2, cupd. destruct (Nat.eqb_spec x l); [contradiction | reflexivity].
Qed.

Lemma cube_root : forall M0 lvl, NoDup (map fst M0) ->
  indep (cubeL M0) lvl -> ~ indep (cubeL M0) (S lvl) ->
  exists b M0', Permutation M0 ((lvl, b) :: M0') /\ NoDup (map fst M0') /\
    (forall c, cofn (cubeL M0) lvl (lit_ix b) c = cubeL M0' c) /\
    (forall c, cofn (cubeL M0) lvl (1 - lit_ix b) c = false).
Proof.
  intros M0 lvl Hnd Ip Hdep.
  assert (Hge : forall p, In p M0 -> lvl <= fst p).
  { intros [l b] Hin. simpl. destruct (le_lt_dec lvl l) as [Hle|Hgt]; [exact Hle|]. exfalso.
    destruct (cube_flip M0 l b Hnd Hin) as [Hc1 [Hc2 [T [F Ex]]]].
    rewrite (Ip _ _ Hc1 Hc2) in T; [congruence|]. intros x Hx. apply Ex. lia. }
  assert (Hroot : In lvl (map fst M0)).
  { destruct (in_dec Nat.eq_dec lvl (map fst M0)) as [Hin|Hnin]; [exact Hin|]. exfalso. apply Hdep.
    intros c c' _ _ E. apply cubeL_reads. intros p Hp. apply E.
    specialize (Hge p Hp). assert (fst p <> lvl) by (intros Eq; apply Hnin; rewrite <- Eq; apply in_map; exact Hp).
    lia. }
  apply in_map_iff in Hroot. destruct Hroot as [[l0 b] [El0 Hin]]. simpl in El0. subst l0.
  destruct (in_split _ _ Hin) as [A [Bq EM0]]. exists b, (A ++ Bq).
  assert (P0 : Permutation M0 ((lvl, b) :: A ++ Bq)).
  { rewrite EM0. symmetry. apply Permutation_middle. }
  assert (Hnd' : NoDup (map fst ((lvl, b) :: A ++ Bq))).
  { eapply Permutation_NoDup; [apply Permutation_map; exact P0 | exact Hnd]. }
  simpl in Hnd'. apply NoDup_cons_iff in Hnd'. destruct Hnd' as [Hn0 Hnd0].
  split; [exact P0|]. split; [exact Hnd0|]. split.
  - intros c. unfold cofn. rewrite (cubeL_perm _ _ _ P0), cubeL_cons.
    unfold cupd at 1. rewrite Nat.eqb_refl, Nat.eqb_refl. simpl.
    apply cubeL_reads. intros p Hp. unfold cupd.
    destruct (Nat.eqb_spec (fst p) lvl) as [E|]; [|reflexivity].
    exfalso. apply Hn0. rewrite <- E. apply in_map. exact Hp.
  - intros c. unfold cofn. apply (cubeL_false M0 _ lvl b Hin).
    unfold cupd. rewrite Nat.eqb_refl. destruct b; simpl; lia.
Qed.

Theorem cube_chain : forall s, BddOK s -> forall n r M0,
  nlevels s - rlevel s r < n -> Den s r (cubeL M0) -> NoDup (map fst M0) ->
  (forall p, In p M0 -> fst p < nlevels s) ->
  exists M, LChain s r M /\ Permutation M M0.
Proof.
  intros s B. pose proof (bo_wf s B) as H.
  induction n as [|n IH]; intros r M0 Hn D Hnd Hlt; [lia|].
  destruct r as [t|id].
  - (* a terminal denotes a constant: the cube is empty *)
    destruct M0 as [|[l b] rest]; [exists []; split; constructor|]. exfalso.
    destruct (cube_flip ((l, b) :: rest) l b Hnd (or_introl eq_refl)) as [Hc1 [Hc2 [T [F _]]]].
    rewrite (den_term_const s t _ _ _ D Hc1 Hc2) in T. congruence.
  - destruct (proj1 D) as [nd En]. rewrite (rlevel_node s id nd En) in Hn.
    destruct (den_node s id nd _ B D En) as [Hlv [Ip [t [e [Ech [Dt [De [Lt Le]]]]]]]].
    set (lvl := nlevel nd) in *.
    assert (Hdep : ~ indep (cubeL M0) (S lvl)).
    { intros I'. pose proof (den_level s (RN id) _ (S lvl) B D ltac:(lia) I') as Hl.
      rewrite (rlevel_node s id nd En) in Hl. fold lvl in Hl. lia. }
    destruct (cube_root M0 lvl Hnd Ip Hdep) as [b [M0' [P0 [Hnd0 [Hsame Hother]]]]].
    assert (Hlt' : forall p, In p M0' -> fst p < nlevels s).
    { intros p Hp. apply Hlt. apply (Permutation_in _ (Permutation_sym P0)). right. exact Hp. }
    destruct b; simpl lit_ix in *.
    + (* positive literal *)
      assert (Dt' : Den s (eref t) (cubeL M0')) by (apply (den_ext s _ _ _ Dt); intros c _; apply Hsame).
      assert (Hv : view s (eref t) = Some VI \/ view s (eref t) = Some (VT true)).
      { destruct (view_total s (eref t) B (proj1 Dt)) as [[|[]] Vt]; [left; exact Vt | right; exact Vt|].
        exfalso. pose proof (view_den_T s (eref t) false _ Dt' Vt (csat M0') (csat_bchoice M0')) as F.
        rewrite (cubeL_sat M0' Hnd0) in F. discriminate. }
      destruct (IH (eref t) M0' ltac:(lia) Dt' Hnd0 Hlt') as [M1 [V1 P1]].
      exists ((lvl, true) :: M1). split; [eapply LC_pos; eauto|].
      eapply Permutation_trans; [apply perm_skip; exact P1 | symmetry; exact P0].
    + (* negative literal: the then-child is the false terminal *)
      assert (Dt' : Den s (eref t) (fun _ => false)) by (apply (den_ext s _ _ _ Dt); intros c _; apply Hother).
      destruct (term_of_total s false B) as [t0 T0].
      pose proof (den_canon s _ _ _ B Dt' (den_const s false t0 B T0)) as Et.
      assert (Hv : view s (eref t) = Some (VT false)).
      { rewrite Et. unfold view. rewrite (term_of_spec s false t0 H T0). reflexivity. }
      assert (De' : Den s (eref e) (cubeL M0')) by (apply (den_ext s _ _ _ De); intros c _; apply Hsame).
      destruct (IH (eref e) M0' ltac:(lia) De' Hnd0 Hlt') as [M1 [V1 P1]].
      exists ((lvl, false) :: M1). split; [eapply LC_neg; eauto|].
      eapply Permutation_trans; [apply perm_skip; exact P1 | symmetry; exact P0].
Qed.

Lemma forallb_map : forall (A B : Type) (f : B -> bool) (g : A -> B) l,
  forallb f (map g l) = forallb (fun x => f (g x)) l.
Proof. intros A B f g l. induction l as [|x r IH]; [reflexivity|]. simpl. rewrite IH. reflexivity. Qed.

Lemma forallb_same_elems : forall (A : Type) (f : A -> bool) l l',
  (forall x, In x l <-> In x l') -> forallb f l = forallb f l'.
Proof.
  intros A f l l' E. destruct (forallb f l) eqn:E1; symmetry.
  - rewrite forallb_forall in *. intros x Hx. apply E1. apply E. exact Hx.
  - destruct (forallb f l') eqn:E2; [|reflexivity].
    rewrite forallb_forall in E2. assert (forallb f l = true); [|congruence].
    apply forallb_forall. intros x Hx. apply E2. apply E. exact Hx.
Qed.

(** ** Variables and levels *)

Definition lv (s : snap) (v : nat) : nat := nth v (s_v2l s) 0.
Definition vl (s : snap) (l : nat) : nat := nth l (s_l2v s) 0.

Section Perm.
Variable s : snap.
Hypothesis H : WF s.

Lemma lv_spec : forall v, v < nlevels s ->
  nth_error (s_v2l s) v = Some (lv s v) /\ nth_error (s_l2v s) (lv s v) = Some v /\ lv s v < nlevels s.
Proof.
  intros v Hv. assert (Hv' : v < length (s_v2l s)) by (rewrite (wf_perm_len s H); exact Hv).
  destruct (wf_perm_v2l s H v Hv') as [l [E1 E2]]. unfold lv.
  rewrite (nth_error_nth _ _ 0 E1). split; [exact E1|]. split; [exact E2|].
  unfold nlevels. apply nth_error_Some. congruence.
Qed.

Lemma vl_spec : forall l, l < nlevels s ->
  nth_error (s_l2v s) l = Some (vl s l) /\ nth_error (s_v2l s) (vl s l) = Some l /\ vl s l < nlevels s.
Proof.
  intros l Hl. destruct (wf_perm_l2v s H l Hl) as [v [E1 E2]]. unfold vl.
  rewrite (nth_error_nth _ _ 0 E1). split; [exact E1|]. split; [exact E2|].
  unfold nlevels. rewrite <- (wf_perm_len s H). apply nth_error_Some. congruence.
Qed.

Lemma vl_lv : forall v, v < nlevels s -> vl s (lv s v) = v.
Proof.
  intros v Hv. destruct (lv_spec v Hv) as [_ [E _]]. unfold vl at 1. apply (nth_error_nth _ _ 0 E).
Qed.

Lemma lv_vl : forall l, l < nlevels s -> lv s (vl s l) = l.
Proof.
  intros l Hl. destruct (vl_spec l Hl) as [_ [E _]]. unfold lv at 1. apply (nth_error_nth _ _ 0 E).
Qed.

Lemma lv_inj : forall v w, v < nlevels s -> w < nlevels s -> lv s v = lv s w -> v = w.
Proof. intros v w Hv Hw E. rewrite <- (vl_lv v Hv), <- (vl_lv w Hw), E. reflexivity. Qed.

(** the assignment read off a choice *)
Definition asg_of (c : nat -> nat) : asg := fun v => Nat.eqb (c (lv s v)) 0.

Lemma choice_of_asg_of : forall c l, bchoice c -> l < nlevels s -> choice_of s (asg_of c) l = c l.
Proof.
  intros c l Hc Hl. unfold choice_of, asg_of. destruct (vl_spec l Hl) as [E [_ _]]. rewrite E.
  rewrite (lv_vl l Hl). pose proof (Hc l). destruct (c l) as [|[|k]]; [reflexivity | reflexivity | lia].
Qed.

(** the interpretation reads the choice only at existing levels *)
Lemma semk_ext_lt : forall f r c c', (forall l, l < nlevels s -> c l = c' l) ->
  semk s f r c = semk s f r c'.
Proof.
  induction f as [|f IH]; intros r c c' E.
  - destruct r as [t|id]; [rewrite !semk_T; reflexivity | reflexivity].
  - destruct r as [t|id]; [rewrite !semk_T; reflexivity|].
    rewrite !semk_S. destruct (find_node s id) as [nd|] eqn:En; [|reflexivity].
    rewrite <- (E (nlevel nd) (wf_level s H id nd En)).
    destruct (nth_error (nchildren nd) (c (nlevel nd))); [apply IH; exact E | reflexivity].
Qed.

Lemma den_lt : forall r phi c c', Den s r phi -> bchoice c -> bchoice c' ->
  (forall l, l < nlevels s -> c l = c' l) -> phi c = phi c'.
Proof.
  intros r phi c c' [_ D] Hc Hc' E. apply b2c_inj.
  pose proof (D c Hc) as A. pose proof (D c' Hc') as A'.
  rewrite (semk_ext_lt _ r c c' E) in A. congruence.
Qed.

Lemma den_bfun : forall r phi c, Den s r phi -> bchoice c -> phi c = bfun_of s r (asg_of c).
Proof.
  intros r phi c D Hc. rewrite (bfun_of_den s r phi D).
  apply (den_lt r phi _ _ D Hc (choice_of_bchoice s _)).
  intros l Hl. symmetry. apply choice_of_asg_of; assumption.
Qed.

Lemma choice_of_aeq : forall a a', aeq a a' -> forall l, choice_of s a l = choice_of s a' l.
Proof. intros a a' E l. unfold choice_of. destruct (nth_error (s_l2v s) l); [rewrite E|]; reflexivity. Qed.

Lemma aext_bfun_of : forall r, aext (bfun_of s r).
Proof.
  intros r a a' E. unfold bfun_of.
  rewrite (semk_ext s H _ r _ _ (fun l _ => choice_of_aeq a a' E l)). reflexivity.
Qed.

(** ** Bridges *)

Lemma quant_bridge : forall q phi ws Ls, cext phi ->
  Forall2 (fun v l => nth_error (s_l2v s) l = Some v) ws Ls ->
  forall a, quant q ws (fun a0 => phi (choice_of s a0)) a = qlevs q Ls phi (choice_of s a).
Proof.
  intros q phi ws Ls X F. induction F as [|v l ws' Ls' El F IH]; intros a; [reflexivity|].
  rewrite quant_cons, !IH. simpl qlevs. unfold qlev, cofn.
  pose proof (cext_qlevs q Ls' phi X) as G.
  assert (E : forall b, qlevs q Ls' phi (choice_of s (Sem.upd a v b))
                        = qlevs q Ls' phi (cupd (choice_of s a) l (lit_ix b))).
  { intros b. apply G; [apply choice_of_bchoice | apply bchoice_upd; [apply choice_of_bchoice | apply lit_ix_lt]|].
    intros x. rewrite (choice_of_upd s a v l b H El x). destruct b; reflexivity. }
  rewrite (E true), (E false). reflexivity.
Qed.

Lemma restr_bridge : forall phi lits M, cext phi ->
  Forall2 (fun (p m : nat * bool) => nth_error (s_l2v s) (fst m) = Some (fst p) /\ snd p = snd m) lits M ->
  forall a, restrict_s lits (fun a0 => phi (choice_of s a0)) a = restr M phi (choice_of s a).
Proof.
  intros phi lits M X F. induction F as [|[v b] [l b'] lits' M' [El Eb] F IH]; intros a; [reflexivity|].
  simpl in El, Eb. subst b'. simpl. unfold cof, cofn. rewrite IH.
  apply (cext_restr M' phi X); [apply choice_of_bchoice | apply bchoice_upd; [apply choice_of_bchoice | apply lit_ix_lt]|].
  intros x. rewrite (choice_of_upd s a v l b H El x). destruct b; reflexivity.
Qed.

Lemma assoc_nat_map : forall (A B : Type) (g : A -> B) (l : list (nat * A)) k,
  assoc_nat (map (fun p => (fst p, g (snd p))) l) k = option_map g (assoc_nat l k).
Proof.
  intros A B g l k. induction l as [|[a b] r IH]; [reflexivity|]. simpl.
  destruct (Nat.eqb a k); [reflexivity | exact IH].
Qed.

Lemma psubst_bridge : forall phi pairs, cext phi ->
  forall a, psubst s pairs phi (choice_of s a) =
            subst_s (map (fun p => (fst p, bfun_of s (snd p))) pairs) (fun a0 => phi (choice_of s a0)) a.
Proof.
  intros phi pairs X a. unfold psubst, subst_s.
  apply X; [apply psch_bchoice; apply choice_of_bchoice | apply choice_of_bchoice|].
  intros l. unfold psch, choice_of. destruct (nth_error (s_l2v s) l) as [v|]; [|reflexivity].
  rewrite (assoc_nat_map _ _ (bfun_of s) pairs v).
  destruct (assoc_nat pairs v) as [r|]; reflexivity.
Qed.

Lemma cubeL_lits : forall (lits : list (nat * bool)) c, bchoice c ->
  cubeL (map (fun p : nat * bool => (lv s (fst p), snd p)) lits) c =
  forallb (fun p : nat * bool => Bool.eqb (asg_of c (fst p)) (snd p)) lits.
Proof.
  intros lits c Hc. unfold cubeL. rewrite forallb_map. apply forallb_ext. intros [v b]. simpl.
  unfold asg_of. pose proof (Hc (lv s v)) as Hb.
  destruct b; simpl; destruct (c (lv s v)) as [|[|k]]; try reflexivity; lia.
Qed.

Lemma lits_levels : forall lits : list (nat * bool), NoDup (map fst lits) ->
  (forall p, In p lits -> fst p < nlevels s) ->
  let M0 := map (fun p : nat * bool => (lv s (fst p), snd p)) lits in
  NoDup (map fst M0) /\ forall p, In p M0 -> fst p < nlevels s.
Proof.
  intros lits Hnd Hlt M0. split.
  - unfold M0. rewrite map_map. simpl.
    induction lits as [|[v b] r IH]; [constructor|].
    simpl in *. inversion Hnd as [|? ? Hn Hr]; subst. constructor.
    + intros Hin. apply in_map_iff in Hin. destruct Hin as [[w b'] [E Hw]]. simpl in E.
      apply Hn. apply in_map_iff. exists (w, b'). split; [|exact Hw]. simpl.
      apply lv_inj; [apply (Hlt (w, b')); right; exact Hw | apply (Hlt (v, b)); left; reflexivity | exact E].
    + apply IH; [exact Hr|]. intros p Hp. apply Hlt. right. exact Hp.
  - intros p Hp. unfold M0 in Hp. apply in_map_iff in Hp. destruct Hp as [[v b] [<- Hv]]. simpl.
    apply (lv_spec v (Hlt (v, b) Hv)).
Qed.

Lemma restr_restrict_s : forall phi (F : asg -> bool) M lits, cext phi -> aext F ->
  (forall a, F a = phi (choice_of s a)) ->
  (forall p, In p M -> fst p < nlevels s) ->
  Permutation M (map (fun p : nat * bool => (lv s (fst p), snd p)) lits) ->
  NoDup (map fst lits) -> (forall p, In p lits -> fst p < nlevels s) ->
  forall a, restr M phi (choice_of s a) = restrict_s lits F a.
Proof.
  intros phi F M lits X XF EF HM P Hnd Hlt a.
  set (lits' := map (fun m : nat * bool => (vl s (fst m), snd m)) M).
  assert (F2 : Forall2 (fun (p m : nat * bool) => nth_error (s_l2v s) (fst m) = Some (fst p) /\ snd p = snd m)
                       lits' M).
  { unfold lits'. clear - HM H. induction M as [|m r IH]; [constructor|]. simpl. constructor.
    - simpl. split; [apply (vl_spec (fst m)); apply HM; left; reflexivity | reflexivity].
    - apply IH. intros p Hp. apply HM. right. exact Hp. }
  rewrite <- (restr_bridge phi lits' M X F2 a).
  rewrite (restrict_s_ext lits' _ F) by (intros a0; symmetry; apply EF).
  assert (P' : Permutation lits' lits).
  { unfold lits'. apply (Permutation_map (fun m : nat * bool => (vl s (fst m), snd m))) in P.
    eapply Permutation_trans; [exact P|]. rewrite map_map. simpl.
    rewrite (map_ext_in _ (fun p => p)); [rewrite map_id; apply Permutation_refl|].
    intros [v b] Hv. simpl. rewrite (vl_lv v (Hlt (v, b) Hv)). reflexivity. }
  apply (restrict_s_perm lits' lits F XF); [|exact P'].
  eapply Permutation_NoDup; [apply Permutation_map; symmetry; exact P' | exact Hnd].
Qed.

End Perm.

(** ** What the caller passes as variable set / cube *)

(** [vars] is the conjunction of the variables [vs] *)
Definition is_varset (s : snap) (vars : ref) (vs : list nat) : Prop :=
  forall a, bfun_of s vars a = forallb (fun v => a v) vs.

(** [vars] is the conjunction of the literals [lits] *)
Definition is_cube (s : snap) (vars : ref) (lits : list (nat * bool)) : Prop :=
  forall a, bfun_of s vars a = forallb (fun p : nat * bool => Bool.eqb (a (fst p)) (snd p)) lits.

(** the literal chain of a cube *)
Lemma cube_lchain : forall s vars lits, BddOK s -> ref_ok s vars -> is_cube s vars lits ->
  NoDup (map fst lits) -> (forall p, In p lits -> fst p < nlevels s) ->
  exists M, LChain s vars M /\
            Permutation M (map (fun p : nat * bool => (lv s (fst p), snd p)) lits).
Proof.
  intros s vars lits B Ov Hc Hnd Hlt. pose proof (bo_wf s B) as H.
  destruct (den_exists s vars B Ov) as [phi0 D0].
  destruct (lits_levels s H lits Hnd Hlt) as [Hnd0 Hlt0].
  pose proof (rlevel_le s H vars).
  apply (cube_chain s B (S (nlevels s)) vars _ ltac:(lia)); [|exact Hnd0 | exact Hlt0].
  apply (den_ext s vars phi0 _ D0). intros c Hc0.
  rewrite (den_bfun s H vars phi0 c D0 Hc0), Hc. symmetry. apply (cubeL_lits s lits c Hc0).
Qed.

Lemma lchain_lt : forall s r M p, BddOK s -> LChain s r M -> In p M -> fst p < nlevels s.
Proof.
  intros s r M p B V. induction V as [t|id nd t e M En Ech Hv V IH|id nd t e M En Ech Hv V IH];
    intros Hin; [destruct Hin| |];
    (destruct Hin as [<-|Hin]; [simpl; apply (wf_level s (bo_wf s B) id nd En) | auto]).
Qed.

Section Top.
Variable gt : ref -> ref -> bool.
Variable C : Type.
Variable cget : C -> N -> list ref -> option ref.
Variable cadd : C -> N -> list ref -> ref -> C.
Hypothesis Hlossy : lossy cget cadd.
Variable Sg : N -> option (list (nat * ref)).

Notation QOK := (QCacheOK cget Sg).

Lemma quant_ext_q : forall (q q' : bool -> bool -> bool) vs f, (forall x y, q x y = q' x y) ->
  forall a, quant q vs f a = quant q' vs f a.
Proof.
  intros q q' vs f E. induction vs as [|v r IH]; intros a; [reflexivity|].
  rewrite !quant_cons, !IH. apply E.
Qed.

Lemma varset_lits : forall s vs, WF s -> (forall v, In v vs -> v < nlevels s) ->
  let ws := nodup Nat.eq_dec vs in
  let lits := map (fun v => (v, true)) ws in
  (forall a : asg, forallb (fun v => a v) vs =
                   forallb (fun p : nat * bool => Bool.eqb (a (fst p)) (snd p)) lits) /\
  NoDup (map fst lits) /\ (forall p, In p lits -> fst p < nlevels s) /\
  forall M, Permutation M (map (fun p : nat * bool => (lv s (fst p), snd p)) lits) ->
    (forall p, In p M -> snd p = true) /\ Permutation (map (vl s) (map fst M)) ws.
Proof.
  intros s vs H Hlt ws lits.
  assert (Hws : forall v, In v ws -> v < nlevels s)
    by (intros v Hv; apply Hlt; unfold ws in Hv; rewrite nodup_In in Hv; exact Hv).
  assert (Hf : map fst lits = ws) by (unfold lits; rewrite map_map; simpl; apply map_id).
  split; [|split; [|split]].
  - intros a. unfold lits. rewrite forallb_map. simpl.
    rewrite (forallb_same_elems _ (fun v => a v) vs ws) by (intros x; unfold ws; rewrite nodup_In; reflexivity).
    apply forallb_ext. intros v. destruct (a v); reflexivity.
  - rewrite Hf. apply NoDup_nodup.
  - intros p Hp. apply Hws. rewrite <- Hf. apply in_map. exact Hp.
  - intros M P. split.
    + intros p Hp. apply (Permutation_in _ P) in Hp. apply in_map_iff in Hp.
      destruct Hp as [[v b] [<- Hv]]. unfold lits in Hv. apply in_map_iff in Hv.
      destruct Hv as [w [E _]]. inversion E. reflexivity.
    + apply (Permutation_map fst) in P. apply (Permutation_map (vl s)) in P.
      eapply Permutation_trans; [exact P|]. unfold lits. rewrite !map_map. simpl.
      rewrite (map_ext_in _ (fun v => v)); [rewrite map_id; apply Permutation_refl|].
      intros v Hv. apply (vl_lv s H). apply Hws. exact Hv.
Qed.

(** the variable set of the algorithms is the variable set of the caller *)
Lemma varset_chain : forall s vars vs, BddOK s -> ref_ok s vars -> is_varset s vars vs ->
  (forall v, In v vs -> v < nlevels s) ->
  exists L, VChain s vars L /\ (forall l, In l L -> l < nlevels s) /\
            Permutation (map (vl s) L) (nodup Nat.eq_dec vs).
Proof.
  intros s vars vs B Ov Hvs Hlt.
  destruct (varset_lits s vs (bo_wf s B) Hlt) as [Ef [Hnd [Hl HM]]].
  destruct (cube_lchain s vars _ B Ov (fun a => eq_trans (Hvs a) (Ef a)) Hnd Hl) as [M [V P]].
  destruct (HM M P) as [Hpos PL].
  pose proof (lchain_vchain s vars M V Hpos) as VL.
  exists (map fst M). split; [exact VL|]. split; [exact (fun l => vchain_lt s B vars _ l VL) | exact PL].
Qed.

Lemma forall2_vl : forall s L, WF s -> (forall l, In l L -> l < nlevels s) ->
  Forall2 (fun v l => nth_error (s_l2v s) l = Some v) (map (vl s) L) L.
Proof.
  intros s L H. induction L as [|l r IH]; intros Hlt; [constructor|]. simpl. constructor.
  - apply (vl_spec s H l). apply Hlt. left. reflexivity.
  - apply IH. intros x Hx. apply Hlt. right. exact Hx.
Qed.

Lemma qlevs_quant_perm : forall s q vs L phi F, WF s -> (forall l, In l L -> l < nlevels s) ->
  Permutation (map (vl s) L) (nodup Nat.eq_dec vs) -> (q = QUnique -> NoDup vs) ->
  cext phi -> aext F -> (forall a, F a = phi (choice_of s a)) ->
  forall a, qlevs (qf q) L phi (choice_of s a) = quant (qfun q) vs F a.
Proof.
  intros s q vs L phi F H HL P Hu X XF EF a.
  rewrite <- (quant_bridge s H (qf q) phi (map (vl s) L) L X (forall2_vl s L H HL)).
  rewrite (quant_ext (qf q) _ _ F) by (intros a0; symmetry; apply EF).
  rewrite (quant_ext_q (qf q) (qfun q)) by (intros x y; symmetry; apply qfun_qop).
  assert (Med : medial (qfun q)) by (destruct q; simpl; auto using medial_andb, medial_orb, medial_xorb).
  rewrite (quant_perm (qfun q) _ _ F Med XF P).
  destruct q.
  - apply (quant_nodup andb vs F idem_andb XF).
  - apply (quant_nodup orb vs F idem_orb XF).
  - rewrite (nodup_fixed_point Nat.eq_dec (Hu eq_refl)). reflexivity.
Qed.

Lemma qlevs_quant : forall s q vars vs L phi F, BddOK s -> ref_ok s vars -> is_varset s vars vs ->
  (forall v, In v vs -> v < nlevels s) -> (q = QUnique -> NoDup vs) ->
  VChain s vars L -> cext phi -> aext F -> (forall a, F a = phi (choice_of s a)) ->
  forall a, qlevs (qf q) L phi (choice_of s a) = quant (qfun q) vs F a.
Proof.
  intros s q vars vs L phi F B Ov Hvs Hlt Hu V X XF EF.
  destruct (varset_chain s vars vs B Ov Hvs Hlt) as [L' [V' [HL P]]].
  rewrite (vchain_fun s _ _ _ V V'). apply (qlevs_quant_perm s q vs L' phi F (bo_wf s B) HL P Hu X XF EF).
Qed.

Lemma qresult_ok_bfun : forall s res Phi, qresult_ok cget Sg s res Phi ->
  exists s' c' r, res = Some (s', c', r) /\ BddOK s' /\ extends s s' /\ QOK s' c' /\ ref_ok s' r /\
    forall a, bfun_of s' r a = Phi (choice_of s a).
Proof.
  intros s res Phi [s' [c' [r [E [B' [X [Q' D']]]]]]]. exists s', c', r. repeat (split; [assumption|]).
  split; [apply (proj1 D')|]. intros a.
  rewrite (bfun_of_den s' r _ D'). unfold choice_of. rewrite (ext_l2v _ _ X). reflexivity.
Qed.

(** The theorems come in two forms.  In the first the caller's reading of
    [vars] is quantified after the run: the algorithms terminate for *every*
    reference passed as variable set / cube; whenever that reference denotes a
    variable set / cube, the result is the spec function.  The second fixes the
    reading beforehand. *)

(** *** exists / forall / unique *)
Theorem quant_edge_total : forall q s c f vars,
  BddOK s -> QOK s c -> ref_ok s f -> ref_ok s vars ->
  exists s' c' r, quant_edge gt C cget cadd s c q f vars = Some (s', c', r) /\
    BddOK s' /\ extends s s' /\ QOK s' c' /\ ref_ok s' r /\
    forall vs, (forall v, In v vs -> v < nlevels s) -> is_varset s vars vs -> (q = QUnique -> NoDup vs) ->
    forall a, bfun_of s' r a = quant (qfun q) vs (bfun_of s f) a.
Proof.
  intros q s c f vars B Q Of Ov. pose proof (bo_wf s B) as H.
  destruct (den_exists s f B Of) as [phi D]. destruct (vchain_total s B vars Ov) as [L V].
  pose proof (rlevel_le s H f).
  destruct (qresult_ok_bfun s _ _
              (quant_rec_ok gt C cget cadd Hlossy Sg q (S (nlevels s)) s c f vars phi L B Q D Ov V ltac:(lia)))
    as [s' [c' [r [E [B' [X [Q' [O' S]]]]]]]].
  exists s', c', r. repeat (split; [assumption|]). intros vs Hlt Hvs Hu a. rewrite S.
  apply (qlevs_quant s q vars vs L phi (bfun_of s f) B Ov Hvs Hlt Hu V (den_cext s f phi H D)
           (aext_bfun_of s H f) (bfun_of_den s f phi D)).
Qed.

Theorem quant_edge_sound : forall q s c f vars vs,
  BddOK s -> QOK s c -> ref_ok s f -> ref_ok s vars ->
  (forall v, In v vs -> v < nlevels s) -> is_varset s vars vs ->
  (q = QUnique -> NoDup vs) ->
  exists s' c' r, quant_edge gt C cget cadd s c q f vars = Some (s', c', r) /\
    BddOK s' /\ extends s s' /\ QOK s' c' /\ ref_ok s' r /\
    forall a, bfun_of s' r a = quant (qfun q) vs (bfun_of s f) a.
Proof.
  intros q s c f vars vs B Q Of Ov Hlt Hvs Hu.
  destruct (quant_edge_total q s c f vars B Q Of Ov) as [s' [c' [r [E [B' [X [Q' [O' S]]]]]]]].
  exists s', c', r. repeat (split; [assumption|]). apply (S vs Hlt Hvs Hu).
Qed.

Theorem apply_quant_edge_total : forall q op s c f g vars,
  BddOK s -> QOK s c -> ref_ok s f -> ref_ok s g -> ref_ok s vars ->
  exists s' c' r, apply_quant_edge gt C cget cadd s c q op f g vars = Some (s', c', r) /\
    BddOK s' /\ extends s s' /\ QOK s' c' /\ ref_ok s' r /\
    forall vs, (forall v, In v vs -> v < nlevels s) -> is_varset s vars vs -> (q = QUnique -> NoDup vs) ->
    forall a, bfun_of s' r a = quant (qfun q) vs (lift2 op (bfun_of s f) (bfun_of s g)) a.
Proof.
  intros q op s c f g vars B Q Of Og Ov. pose proof (bo_wf s B) as H.
  destruct (den_exists s f B Of) as [phi Df]. destruct (den_exists s g B Og) as [psi Dg].
  destruct (vchain_total s B vars Ov) as [L V].
  destruct (qresult_ok_bfun s _ _
              (apply_quant_ok gt C cget cadd Hlossy Sg q op (S (nlevels s)) s c f g vars phi psi L
                 B Q Df Dg Ov V ltac:(lia)))
    as [s' [c' [r [E [B' [X [Q' [O' S]]]]]]]].
  exists s', c', r. repeat (split; [assumption|]). intros vs Hlt Hvs Hu a. rewrite S.
  apply (qlevs_quant s q vars vs L _ (lift2 op (bfun_of s f) (bfun_of s g)) B Ov Hvs Hlt Hu V).
  - apply (cext_bin _ phi psi (den_cext s f phi H Df) (den_cext s g psi H Dg)).
  - apply aext_lift2; apply (aext_bfun_of s H).
  - intros a0. unfold lift2. rewrite (bfun_of_den s f phi Df), (bfun_of_den s g psi Dg). reflexivity.
Qed.

Theorem apply_quant_edge_sound : forall q op s c f g vars vs,
  BddOK s -> QOK s c -> ref_ok s f -> ref_ok s g -> ref_ok s vars ->
  (forall v, In v vs -> v < nlevels s) -> is_varset s vars vs ->
  (q = QUnique -> NoDup vs) ->
  exists s' c' r, apply_quant_edge gt C cget cadd s c q op f g vars = Some (s', c', r) /\
    BddOK s' /\ extends s s' /\ QOK s' c' /\ ref_ok s' r /\
    forall a, bfun_of s' r a = quant (qfun q) vs (lift2 op (bfun_of s f) (bfun_of s g)) a.
Proof.
  intros q op s c f g vars vs B Q Of Og Ov Hlt Hvs Hu.
  destruct (apply_quant_edge_total q op s c f g vars B Q Of Og Ov) as [s' [c' [r [E [B' [X [Q' [O' S]]]]]]]].
  exists s', c', r. repeat (split; [assumption|]). apply (S vs Hlt Hvs Hu).
Qed.

(** *** restrict *)
Theorem restrict_edge_total : forall s c f vars,
  BddOK s -> QOK s c -> ref_ok s f -> ref_ok s vars ->
  exists s' c' r, restrict_edge C cget cadd s c f vars = Some (s', c', r) /\
    BddOK s' /\ extends s s' /\ QOK s' c' /\ ref_ok s' r /\
    forall lits, NoDup (map fst lits) -> (forall p, In p lits -> fst p < nlevels s) -> is_cube s vars lits ->
    forall a, bfun_of s' r a = restrict_s lits (bfun_of s f) a.
Proof.
  intros s c f vars B Q Of Ov. pose proof (bo_wf s B) as H.
  destruct (den_exists s f B Of) as [phi D]. destruct (lchain_total s B vars Ov) as [M V].
  pose proof (rlevel_le s H f).
  destruct (qresult_ok_bfun s _ _
              (restrict_ok C cget cadd Hlossy Sg (S (nlevels s)) s c f vars phi M B Q D Ov V ltac:(lia)))
    as [s' [c' [r [E [B' [X [Q' [O' S]]]]]]]].
  exists s', c', r. repeat (split; [assumption|]). intros lits Hnd Hlt Hc a. rewrite S.
  (* the walk of the algorithm reads the caller's cube, up to the order of the literals *)
  destruct (cube_lchain s vars lits B Ov Hc Hnd Hlt) as [M1 [V1 P]].
  rewrite (lchain_fun s vars M1 M V1 V) in P.
  apply (restr_restrict_s s H phi (bfun_of s f) M lits (den_cext s f phi H D) (aext_bfun_of s H f)
           (bfun_of_den s f phi D) (fun p Hp => lchain_lt s vars M p B V Hp) P Hnd Hlt).
Qed.

Theorem restrict_edge_sound : forall s c f vars lits,
  BddOK s -> QOK s c -> ref_ok s f -> ref_ok s vars ->
  NoDup (map fst lits) -> (forall p, In p lits -> fst p < nlevels s) -> is_cube s vars lits ->
  exists s' c' r, restrict_edge C cget cadd s c f vars = Some (s', c', r) /\
    BddOK s' /\ extends s s' /\ QOK s' c' /\ ref_ok s' r /\
    forall a, bfun_of s' r a = restrict_s lits (bfun_of s f) a.
Proof.
  intros s c f vars lits B Q Of Ov Hnd Hlt Hc.
  destruct (restrict_edge_total s c f vars B Q Of Ov) as [s' [c' [r [E [B' [X [Q' [O' S]]]]]]]].
  exists s', c', r. repeat (split; [assumption|]). apply (S lits Hnd Hlt Hc).
Qed.

(** *** substitute *)
Theorem substitute_edge_sound : forall s c f pairs id,
  BddOK s -> QOK s c -> ref_ok s f -> NoDup (map fst pairs) ->
  (forall v r, In (v, r) pairs -> v < nlevels s /\ ref_ok s r) -> Sg id = Some pairs ->
  exists s' c' r, substitute_edge gt C cget cadd s c f pairs id = Some (s', c', r) /\
    BddOK s' /\ extends s s' /\ QOK s' c' /\ ref_ok s' r /\
    forall a, bfun_of s' r a =
              subst_s (map (fun p => (fst p, bfun_of s (snd p))) pairs) (bfun_of s f) a.
Proof.
  intros s c f pairs id B Q Of Hnd Hp Es. pose proof (bo_wf s B) as H.
  destruct (den_exists s f B Of) as [phi D].
  destruct (qresult_ok_bfun s _ _ (substitute_edge_ok gt C cget cadd Hlossy Sg s c f pairs id phi B Q D Hnd Hp Es))
    as [s' [c' [r [E [B' [X [Q' [O' S]]]]]]]].
  exists s', c', r. repeat (split; [assumption|]). intros a. rewrite S.
  rewrite (psubst_bridge s phi pairs (den_cext s f phi H D) a).
  apply subst_s_ext. intros a0. symmetry. apply (bfun_of_den s f phi D).
Qed.

End Top.

(** ** The six quantifier entry points in terms of [exists_s] / [forall_s] / [unique_s] *)

Section Instances.
Variable gt : ref -> ref -> bool.
Variable C : Type.
Variable cget : C -> N -> list ref -> option ref.
Variable cadd : C -> N -> list ref -> ref -> C.
Hypothesis Hlossy : lossy cget cadd.
Variable Sg : N -> option (list (nat * ref)).

Notation QOK := (QCacheOK cget Sg).

Theorem exists_edge_sound : forall s c f vars vs,
  BddOK s -> QOK s c -> ref_ok s f -> ref_ok s vars ->
  (forall v, In v vs -> v < nlevels s) -> is_varset s vars vs ->
  exists s' c' r, quant_edge gt C cget cadd s c QExists f vars = Some (s', c', r) /\
    BddOK s' /\ extends s s' /\ QOK s' c' /\ ref_ok s' r /\
    forall a, bfun_of s' r a = exists_s vs (bfun_of s f) a.
Proof.
  intros s c f vars vs B Q Of Ov Hlt Hvs.
  apply (quant_edge_sound gt C cget cadd Hlossy Sg QExists s c f vars vs B Q Of Ov Hlt Hvs). discriminate.
Qed.

Theorem forall_edge_sound : forall s c f vars vs,
  BddOK s -> QOK s c -> ref_ok s f -> ref_ok s vars ->
  (forall v, In v vs -> v < nlevels s) -> is_varset s vars vs ->
  exists s' c' r, quant_edge gt C cget cadd s c QForall f vars = Some (s', c', r) /\
    BddOK s' /\ extends s s' /\ QOK s' c' /\ ref_ok s' r /\
    forall a, bfun_of s' r a = forall_s vs (bfun_of s f) a.
Proof.
  intros s c f vars vs B Q Of Ov Hlt Hvs.
  apply (quant_edge_sound gt C cget cadd Hlossy Sg QForall s c f vars vs B Q Of Ov Hlt Hvs). discriminate.
Qed.

Theorem unique_edge_sound : forall s c f vars vs,
  BddOK s -> QOK s c -> ref_ok s f -> ref_ok s vars ->
  (forall v, In v vs -> v < nlevels s) -> is_varset s vars vs -> NoDup vs ->
  exists s' c' r, quant_edge gt C cget cadd s c QUnique f vars = Some (s', c', r) /\
    BddOK s' /\ extends s s' /\ QOK s' c' /\ ref_ok s' r /\
    forall a, bfun_of s' r a = unique_s vs (bfun_of s f) a.
Proof.
  intros s c f vars vs B Q Of Ov Hlt Hvs Hnd.
  apply (quant_edge_sound gt C cget cadd Hlossy Sg QUnique s c f vars vs B Q Of Ov Hlt Hvs). intros _. exact Hnd.
Qed.

Theorem apply_exists_edge_sound : forall op s c f g vars vs,
  BddOK s -> QOK s c -> ref_ok s f -> ref_ok s g -> ref_ok s vars ->
  (forall v, In v vs -> v < nlevels s) -> is_varset s vars vs ->
  exists s' c' r, apply_quant_edge gt C cget cadd s c QExists op f g vars = Some (s', c', r) /\
    BddOK s' /\ extends s s' /\ QOK s' c' /\ ref_ok s' r /\
    forall a, bfun_of s' r a = exists_s vs (lift2 op (bfun_of s f) (bfun_of s g)) a.
Proof.
  intros op s c f g vars vs B Q Of Og Ov Hlt Hvs.
  apply (apply_quant_edge_sound gt C cget cadd Hlossy Sg QExists op s c f g vars vs B Q Of Og Ov Hlt Hvs).
  discriminate.
Qed.

Theorem apply_forall_edge_sound : forall op s c f g vars vs,
  BddOK s -> QOK s c -> ref_ok s f -> ref_ok s g -> ref_ok s vars ->
  (forall v, In v vs -> v < nlevels s) -> is_varset s vars vs ->
  exists s' c' r, apply_quant_edge gt C cget cadd s c QForall op f g vars = Some (s', c', r) /\
    BddOK s' /\ extends s s' /\ QOK s' c' /\ ref_ok s' r /\
    forall a, bfun_of s' r a = forall_s vs (lift2 op (bfun_of s f) (bfun_of s g)) a.
Proof.
  intros op s c f g vars vs B Q Of Og Ov Hlt Hvs.
  apply (apply_quant_edge_sound gt C cget cadd Hlossy Sg QForall op s c f g vars vs B Q Of Og Ov Hlt Hvs).
  discriminate.
Qed.

Theorem apply_unique_edge_sound : forall op s c f g vars vs,
  BddOK s -> QOK s c -> ref_ok s f -> ref_ok s g -> ref_ok s vars ->
  (forall v, In v vs -> v < nlevels s) -> is_varset s vars vs -> NoDup vs ->
  exists s' c' r, apply_quant_edge gt C cget cadd s c QUnique op f g vars = Some (s', c', r) /\
    BddOK s' /\ extends s s' /\ QOK s' c' /\ ref_ok s' r /\
    forall a, bfun_of s' r a = unique_s vs (lift2 op (bfun_of s f) (bfun_of s g)) a.
Proof.
  intros op s c f g vars vs B Q Of Og Ov Hlt Hvs Hnd.
  apply (apply_quant_edge_sound gt C cget cadd Hlossy Sg QUnique op s c f g vars vs B Q Of Og Ov Hlt Hvs).
  intros _. exact Hnd.
Qed.

(** the fused forms return what the plain operator followed by the plain
    quantification returns: the same reference (canonicity), whatever the two
    caches contain *)
Theorem apply_quant_is_apply_then_quant : forall q op s c1 c2 f g vars vs,
  BddOK s -> QOK s c1 -> QOK s c2 -> ref_ok s f -> ref_ok s g -> ref_ok s vars ->
  (forall v, In v vs -> v < nlevels s) -> is_varset s vars vs -> (q = QUnique -> NoDup vs) ->
  exists s1 c1' r1 s2 c2' h s3 c3' r2,
    apply_quant_edge gt C cget cadd s c1 q op f g vars = Some (s1, c1', r1) /\
    apply_bin gt C cget cadd (S (nlevels s)) s c2 op f g = Some (s2, c2', h) /\
    quant_edge gt C cget cadd s2 c2' q h vars = Some (s3, c3', r2) /\
    forall a, bfun_of s1 r1 a = bfun_of s3 r2 a.
Proof.
  intros q op s c1 c2 f g vars vs B Q1 Q2 Of Og Ov Hlt Hvs Hu. pose proof (bo_wf s B) as H.
  destruct (apply_quant_edge_sound gt C cget cadd Hlossy Sg q op s c1 f g vars vs B Q1 Of Og Ov Hlt Hvs Hu)
    as [s1 [c1' [r1 [E1 [B1 [X1 [_ [_ S1]]]]]]]].
  destruct (den_exists s f B Of) as [phi Df]. destruct (den_exists s g B Og) as [psi Dg].
  destruct (q_apply_bin gt C cget cadd Hlossy Sg op s c2 f g phi psi B Q2 Df Dg)
    as [s2 [c2' [h [E2 [B2 [X2 [Q2' D2]]]]]]].
  assert (Hvs2 : is_varset s2 vars vs).
  { intros a. rewrite <- Hvs. unfold bfun_of, FUEL, choice_of.
    rewrite (ext_nlevels _ _ X2), (ext_l2v _ _ X2), (semk_extends s s2 H X2 _ vars _ Ov). reflexivity. }
  assert (Hlt2 : forall v, In v vs -> v < nlevels s2) by (intros v Hv; rewrite (ext_nlevels _ _ X2); auto).
  destruct (quant_edge_sound gt C cget cadd Hlossy Sg q s2 c2' h vars vs B2 Q2' (proj1 D2)
              (ext_ref_ok _ _ _ X2 Ov) Hlt2 Hvs2 Hu)
    as [s3 [c3' [r2 [E3 [_ [_ [_ [_ S3]]]]]]]].
  exists s1, c1', r1, s2, c2', h, s3, c3', r2. repeat (split; [assumption|]).
  intros a. rewrite S1, S3. apply quant_ext. intros a0. unfold lift2.
  rewrite (bfun_of_den s2 h _ D2), (bfun_of_den s f phi Df), (bfun_of_den s g psi Dg).
  unfold choice_of. rewrite (ext_l2v _ _ X2). reflexivity.
Qed.

End Instances.
