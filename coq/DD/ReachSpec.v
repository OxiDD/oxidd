(** * What [count_reach] counts, and what an [iso] relates

    - [count_reach_spec]: the work-list traversal [reach] (DD/Table.v) with the
      fuel [count_reach] gives it visits exactly the references reachable
      from the edge through child edges ([reachable], DD/TableProofs.v), each
      once: [count_reach s e] is the number of reachable stored inner nodes
      plus the number of reachable terminals;
    - [bisim_reachable], [iso_reachable]: a bisimulation / [iso]
      (DD/BuildCanonProofs.v) that relates two roots is total and onto between
      the two reachable sub-diagrams - together with its one-to-one clauses
      it is a graph isomorphism between them. *)

From Coq Require Import List NArith PArith Bool Arith Lia FMapPositive.
From OxiVerif Require Import DD.Table DD.TableProofs DD.Iso DD.BuildCanonProofs.
Import ListNotations.

(** ** The traversal *)

Section ReachSpec.
Variable s : snap.
Hypothesis Har : arity_ok s.

Definition seenN (sn : PositiveMap.t unit) (id : positive) : Prop := PositiveMap.find id sn <> None.

(** [x] needs no further work: a recorded terminal, a marked node, or a
    dangling node reference (skipped by [reach]; none in a well-formed table) *)
Definition rdone (sn : PositiveMap.t unit) (st : list N) (x : ref) : Prop :=
  match x with
  | RT t => In t st
  | RN id => seenN sn id \/ find_node s id = None
  end.

Section Inv.
(** a set of references that is closed under taking children *)
Variable P : ref -> Prop.
Hypothesis Pchild : forall id nd e, P (RN id) -> find_node s id = Some nd -> In e (nchildren nd) -> P (eref e).

Record rinv (todo : list ref) (sn : PositiveMap.t unit) (st : list N) : Prop := mkRinv {
  ri_todo : forall x, In x todo -> P x;
  ri_sn : forall id, seenN sn id -> P (RN id) /\ find_node s id <> None;
  ri_st : forall t, In t st -> P (RT t);
  ri_nodup : NoDup st;
  ri_closed : forall id nd e, seenN sn id -> find_node s id = Some nd -> In e (nchildren nd) ->
    In (eref e) todo \/ rdone sn st (eref e)
}.

Lemma rinv_seen_sub : forall todo sn st, rinv todo sn st -> seen_sub s sn.
Proof. intros todo sn st I k Hk. apply (ri_sn _ _ _ I k Hk). Qed.

Lemma seenN_add : forall sn id k, seenN (PositiveMap.add id tt sn) k <-> k = id \/ seenN sn k.
Proof.
  intros sn id k. unfold seenN. destruct (Pos.eq_dec k id) as [->|Hne].
  - rewrite PositiveMap.gss. split; [auto | discriminate].
  - rewrite PositiveMap.gso by exact Hne. split; [auto | intros [E|E]; [contradiction | exact E]].
Qed.

Lemma reach_post : forall fuel todo sn st, mu s todo sn <= fuel -> rinv todo sn st ->
  rinv [] (fst (reach s fuel todo sn st)) (snd (reach s fuel todo sn st)) /\
  (forall x, rdone sn st x -> rdone (fst (reach s fuel todo sn st)) (snd (reach s fuel todo sn st)) x) /\
  (forall x, In x todo -> rdone (fst (reach s fuel todo sn st)) (snd (reach s fuel todo sn st)) x).
Proof.
  induction fuel as [|f IH]; intros todo sn st Hmu I.
  - assert (todo = []) by (unfold mu in Hmu; destruct todo; [reflexivity | cbn [length] in Hmu; nia]).
    subst todo. simpl. split; [exact I|]. split; [auto | intros x []].
  - rewrite reach_S. destruct todo as [|x r].
    + simpl. split; [exact I|]. split; [auto | intros y []].
    + assert (Hmu' : mu s r sn <= f) by (unfold mu in *; cbn [length] in *; nia).
      assert (Skip : rdone sn st x ->
                rinv [] (fst (reach s f r sn st)) (snd (reach s f r sn st)) /\
                (forall y, rdone sn st y -> rdone (fst (reach s f r sn st)) (snd (reach s f r sn st)) y) /\
                (forall y, In y (x :: r) -> rdone (fst (reach s f r sn st)) (snd (reach s f r sn st)) y)).
      { intros Hd.
        assert (I' : rinv r sn st).
        { constructor; try apply I.
          - intros y Hy. apply (ri_todo _ _ _ I). right. exact Hy.
          - intros k nd e Hk En He. destruct (ri_closed _ _ _ I k nd e Hk En He) as [[Hx|Hx]|Hx]; auto.
            right. rewrite <- Hx. exact Hd. }
        destruct (IH r sn st Hmu' I') as [A [B C]]. split; [exact A|]. split; [exact B|].
        intros y [<-|Hy]; [apply B; exact Hd | apply C; exact Hy]. }
      destruct x as [t|id].
      * destruct (existsb (N.eqb t) st) eqn:Et; [apply Skip; apply existsb_N_In in Et; exact Et|].
        assert (Hn : ~ In t st) by (intros Hin; apply existsb_N_In in Hin; congruence).
        assert (I' : rinv r sn (t :: st)).
        { constructor.
          - intros x Hx. apply (ri_todo _ _ _ I). right. exact Hx.
          - apply I.
          - intros u [<-|Hu]; [apply (ri_todo _ _ _ I); left; reflexivity | apply (ri_st _ _ _ I u Hu)].
          - constructor; [exact Hn | apply I].
          - intros k nd e Hk En He. destruct (ri_closed _ _ _ I k nd e Hk En He) as [[Hx|Hx]|Hx].
            + right. rewrite <- Hx. left. reflexivity.
            + left. exact Hx.
            + right. destruct (eref e); simpl in *; auto. }
        destruct (IH r sn (t :: st) Hmu' I') as [A [B C]]. split; [exact A|].
        assert (Hd : forall x, rdone sn st x -> rdone sn (t :: st) x)
          by (intros [u|k]; simpl; auto).
        split; [intros x Hx; apply B, Hd, Hx|].
        intros x [<-|Hx]; [apply B; left; reflexivity | apply C; exact Hx].
      * destruct (PositiveMap.find id sn) as [u|] eqn:Es; [apply Skip; left; unfold seenN; congruence|].
        destruct (find_node s id) as [nd|] eqn:En; [|apply Skip; right; exact En].
        assert (Hsub : seen_sub s sn) by (apply (rinv_seen_sub _ _ _ I)).
        assert (Hlt : PositiveMap.cardinal sn < PositiveMap.cardinal (s_nodes s)).
        { apply (card_lt unit node sn (s_nodes s) id tt); [exact Hsub | | exact Es].
          unfold find_node in En. congruence. }
        assert (Hmu2 : mu s (map eref (nchildren nd) ++ r) (PositiveMap.add id tt sn) <= f).
        { unfold mu in *. rewrite app_length, map_length, (card_add_new unit sn id tt Es).
          cbn [length] in Hmu. pose proof (Har id nd En) as Hl.
          set (c := PositiveMap.cardinal sn) in *. set (n := PositiveMap.cardinal (s_nodes s)) in *.
          replace (n - c) with (S (n - S c)) in Hmu by lia. rewrite Nat.mul_succ_r in Hmu. lia. }
        assert (Pid : P (RN id)) by (apply (ri_todo _ _ _ I); left; reflexivity).
        assert (Hd : forall x, rdone sn st x -> rdone (PositiveMap.add id tt sn) st x).
        { intros [u|k]; simpl; [auto|]. intros [Hk|Hk]; [left; apply seenN_add; auto | auto]. }
        assert (I' : rinv (map eref (nchildren nd) ++ r) (PositiveMap.add id tt sn) st).
        { constructor.
          - intros x Hx. apply in_app_or in Hx. destruct Hx as [Hx|Hx].
            + apply in_map_iff in Hx. destruct Hx as [e [<- He]]. apply (Pchild id nd e Pid En He).
            + apply (ri_todo _ _ _ I). right. exact Hx.
          - intros k Hk. apply seenN_add in Hk. destruct Hk as [->|Hk].
            + split; [exact Pid | congruence].
            + apply (ri_sn _ _ _ I k Hk).
          - apply I.
          - apply I.
          - intros k nd' e Hk En' He. apply seenN_add in Hk. destruct Hk as [->|Hk].
            + rewrite En in En'. inversion En'; subst nd'. left. apply in_or_app. left.
              apply in_map. exact He.
            + destruct (ri_closed _ _ _ I k nd' e Hk En' He) as [[Hx|Hx]|Hx].
              * right. rewrite <- Hx. left. apply seenN_add. auto.
              * left. apply in_or_app. right. exact Hx.
              * right. apply Hd. exact Hx. }
        destruct (IH _ _ st Hmu2 I') as [A [B C]]. split; [exact A|].
        split; [intros x Hx; apply B, Hd, Hx|].
        intros x [<-|Hx]; [apply B; left; apply seenN_add; auto | apply C; apply in_or_app; auto].
Qed.

End Inv.

Lemma keys_seen : forall (sn : PositiveMap.t unit) id,
  In id (map fst (PositiveMap.elements sn)) <-> seenN sn id.
Proof.
  intros sn id. unfold seenN. split.
  - intros Hin. apply in_map_iff in Hin. destruct Hin as [[k v] [<- Hin]]. simpl.
    apply PositiveMap.elements_complete in Hin. congruence.
  - intros Hf. destruct (PositiveMap.find id sn) as [v|] eqn:E; [|congruence].
    apply PositiveMap.elements_correct in E. apply in_map_iff. exists (id, v). auto.
Qed.

(** [count_reach s e] = number of stored inner nodes reachable from [e] +
    number of terminals reachable from [e] *)
Theorem count_reach_spec : forall e, exists (ns : list positive) (ts : list N),
  NoDup ns /\ NoDup ts /\
  (forall id, In id ns <-> reachable s [eref e] (RN id) /\ find_node s id <> None) /\
  (forall t, In t ts <-> reachable s [eref e] (RT t)) /\
  count_reach s e = N.of_nat (length ns + length ts).
Proof.
  intros e. set (P := reachable s [eref e]).
  assert (Pchild : forall id nd x, P (RN id) -> find_node s id = Some nd -> In x (nchildren nd) -> P (eref x))
    by (intros id nd x Hp En Hx; apply (reach_child s [eref e] id nd x Hp En Hx)).
  set (F := let n := PositiveMap.cardinal (s_nodes s) in
            let fuel := S (n * S (arity (s_kind s)) + length (s_terms s) + 1) in fuel + fuel).
  assert (Hmu : mu s [eref e] (PositiveMap.empty unit) <= F).
  { unfold mu, F. simpl length. change (PositiveMap.cardinal (PositiveMap.empty unit)) with 0.
    rewrite Nat.sub_0_r, (Nat.mul_comm (S (arity (s_kind s)))). cbv zeta. lia. }
  assert (I0 : rinv P [eref e] (PositiveMap.empty unit) []).
  { constructor.
    - intros x [<-|[]]. apply reach_root. left. reflexivity.
    - intros id Hid. unfold seenN in Hid. rewrite PositiveMap.gempty in Hid. congruence.
    - intros t [].
    - constructor.
    - intros id nd x Hid. unfold seenN in Hid. rewrite PositiveMap.gempty in Hid. congruence. }
  destruct (reach_post P Pchild F [eref e] (PositiveMap.empty unit) [] Hmu I0) as [A [_ C]].
  assert (Hc : count_reach s e =
               N.of_nat (PositiveMap.cardinal (fst (reach s F [eref e] (PositiveMap.empty unit) []))
                         + length (snd (reach s F [eref e] (PositiveMap.empty unit) [])))).
  { unfold count_reach. fold F. destruct (reach s F [eref e] (PositiveMap.empty unit) []). reflexivity. }
  destruct (reach s F [eref e] (PositiveMap.empty unit) []) as [sn st]. simpl fst in *. simpl snd in *.
  (* everything reachable is done *)
  assert (Hall : forall x, P x -> rdone sn st x).
  { intros x Hx. induction Hx as [r Hr|id nd x Hp IHp En Hx].
    - apply C. exact Hr.
    - destruct IHp as [Hs|Hn]; [|congruence].
      destruct (ri_closed P _ _ _ A id nd x Hs En Hx) as [[]|Hd]. exact Hd. }
  exists (map fst (PositiveMap.elements sn)), st.
  split; [apply elements_keys_nodup|]. split; [apply (ri_nodup P _ _ _ A)|].
  split; [|split].
  - intros id. rewrite keys_seen. split; [apply (ri_sn P _ _ _ A)|].
    intros [Hp Hf]. destruct (Hall _ Hp) as [Hs|Hn]; [exact Hs | contradiction].
  - intros t. split; [apply (ri_st P _ _ _ A) | apply (Hall (RT t))].
  - rewrite Hc, map_length, PositiveMap.cardinal_1. reflexivity.
Qed.

End ReachSpec.

(** ** Bisimulations are total and onto between the reachable sub-diagrams *)

Lemma Forall2_In_l : forall (A B : Type) (R : A -> B -> Prop) l1 l2 x,
  Forall2 R l1 l2 -> In x l1 -> exists y, In y l2 /\ R x y.
Proof.
  intros A B R l1 l2 x HF. induction HF as [|a b l1 l2 Hab HF IH]; intros Hin; [destruct Hin|].
  destruct Hin as [<-|Hin]; [exists b; split; [left; reflexivity | exact Hab]|].
  destruct (IH Hin) as [y [Hy Hr]]. exists y. split; [right; exact Hy | exact Hr].
Qed.

Lemma Forall2_swap : forall (A B : Type) (R : A -> B -> Prop) l1 l2,
  Forall2 R l1 l2 -> Forall2 (fun b a => R a b) l2 l1.
Proof. intros A B R l1 l2 HF. induction HF; constructor; auto. Qed.

Lemma bisim_swap : forall s1 s2 R, bisim s1 s2 R -> bisim s2 s1 (fun b a => R a b).
Proof.
  intros s1 s2 R HB. constructor.
  - intros r2 r1 HR. pose proof (bs_shape s1 s2 R HB r1 r2 HR) as Hs.
    destruct r1, r2; auto.
  - intros b a HR. pose proof (bs_node s1 s2 R HB a b HR) as Hn.
    destruct (find_node s1 a), (find_node s2 b); auto. apply Forall2_swap. exact Hn.
  - intros b a b' a' H1 H2. pose proof (bs_inj_n s1 s2 R HB a b a' b' H1 H2). tauto.
  - intros u t u' t' H1 H2. pose proof (bs_inj_t s1 s2 R HB t u t' u' H1 H2). tauto.
Qed.

Theorem bisim_reachable : forall s1 s2 R, bisim s1 s2 R -> forall r1 r2, R r1 r2 ->
  forall x, reachable s1 [r1] x -> exists y, reachable s2 [r2] y /\ R x y.
Proof.
  intros s1 s2 R HB r1 r2 HR x Hx. induction Hx as [r Hr|id nd e Hp IH En He].
  - destruct Hr as [<-|[]]. exists r2. split; [apply reach_root; left; reflexivity | exact HR].
  - destruct IH as [y [Hy Rxy]].
    pose proof (bs_shape s1 s2 R HB _ _ Rxy) as Hs. destruct y as [u|b]; [contradiction|].
    pose proof (bs_node s1 s2 R HB id b Rxy) as Hn. rewrite En in Hn.
    destruct (find_node s2 b) as [n2|] eqn:E2; [|contradiction].
    destruct (Forall2_In_l _ _ R _ _ (eref e) Hn (in_map eref _ _ He)) as [y' [Hy' Ry']].
    apply in_map_iff in Hy'. destruct Hy' as [e2 [<- He2]].
    exists (eref e2). split; [apply (reach_child s2 [r2] b n2 e2 Hy E2 He2) | exact Ry'].
Qed.

(** an [iso] relating two roots restricts to an isomorphism between the two
    reachable sub-diagrams: every reachable reference on either side has a
    partner (unique by the one-to-one clauses of [bisim]) on the other side *)
Theorem iso_reachable : forall s1 s2 R, iso s1 s2 R -> forall r1 r2, R r1 r2 ->
  (forall x, reachable s1 [r1] x -> exists y, reachable s2 [r2] y /\ R x y) /\
  (forall y, reachable s2 [r2] y -> exists x, reachable s1 [r1] x /\ R x y).
Proof.
  intros s1 s2 R I r1 r2 HR. pose proof (iso_bisim _ _ _ I) as HB. split.
  - apply (bisim_reachable s1 s2 R HB r1 r2 HR).
  - apply (bisim_reachable s2 s1 _ (bisim_swap s1 s2 R HB) r2 r1 HR).
Qed.

(** the partner is unique *)
Theorem bisim_functional : forall s1 s2 R, bisim s1 s2 R ->
  forall x y y', R x y -> R x y' -> y = y'.
Proof.
  intros s1 s2 R HB x y y' H1 H2.
  pose proof (bs_shape s1 s2 R HB _ _ H1) as S1. pose proof (bs_shape s1 s2 R HB _ _ H2) as S2.
  destruct x as [t|a], y as [u|b], y' as [u'|b']; try contradiction.
  - f_equal. apply (bs_inj_t s1 s2 R HB t u t u' H1 H2). reflexivity.
  - f_equal. apply (bs_inj_n s1 s2 R HB a b a b' H1 H2). reflexivity.
Qed.
