(** * Soundness of [crestrict] with its tail-recursive [crestrict_inner]
      (complement-edge kind: [f_neg] / [vars_neg] polarity tracking)

    [crestrict_ok]: for every BcOK table, [QCacheOKC] cache, operand [f] and
    edge [vars] (read as a cube of literals the way the code walks it,
    [LChainC] with the accumulated polarity), the result denotes the cofactor of
    [f] w.r.t. those literals ([restr]). *)

From Coq Require Import List NArith PArith Bool Arith Lia FMapPositive.
From OxiVerif Require Import DD.Table DD.TableProofs DD.Canon DD.CanonBcdd DD.Sem DD.Build DD.BuildProofs
  DD.Apply DD.ApplyProofs DD.ApplyBcdd DD.ApplyBcddProofs DD.ApplyBcddIte
  DD.Quant DD.QuantLemmas DD.QuantProofs DD.RestrictProofs DD.QuantBcdd DD.QuantBcddLemmas.
Import ListNotations.

Lemma crestrict_inner_S : forall n s f f_neg fnode flevel vars vars_neg vnode,
  crestrict_inner (S n) s f f_neg fnode flevel vars vars_neg vnode =
    let vlevel := nstored vnode in
    if Nat.ltb flevel vlevel then
      Some (CRRec (mkEdge (eref vars) vars_neg) f f_neg fnode)
    else
      match nchildren vnode with
      | [vt; ve] =>
        if Nat.ltb vlevel flevel then
          match eref vt with
          | RN tid =>
            match find_node s tid with
            | Some nn => crestrict_inner n s f f_neg fnode flevel vt (xorb vars_neg (etag vt)) nn
            | None => None
            end
          | RT _ =>
            if vars_neg then
              match eref ve with
              | RN eid =>
                match find_node s eid with
                | Some nn => crestrict_inner n s f f_neg fnode flevel ve (negb (etag ve)) nn
                | None => None
                end
              | RT _ => Some (CRDone (mkEdge (eref f) f_neg))
              end
            else Some (CRDone (mkEdge (eref f) f_neg))
          end
        else
          match nchildren fnode with
          | [ft; fe] =>
            match eref vt with
            | RN tid =>
              match find_node s tid with
              | Some nn =>
                let f_neg' := xorb f_neg (etag ft) in
                match eref ft with
                | RN fid' =>
                  match find_node s fid' with
                  | Some fn' =>
                    crestrict_inner n s ft f_neg' fn' (nstored fn') vt (xorb vars_neg (etag vt)) nn
                  | None => None
                  end
                | RT _ => Some (CRDone (mkEdge (eref ft) f_neg'))
                end
              | None => None
              end
            | RT _ =>
              if vars_neg then
                let f_neg' := xorb f_neg (etag fe) in
                match eref ve with
                | RN eid =>
                  match find_node s eid with
                  | Some nn =>
                    match eref fe with
                    | RN fid' =>
                      match find_node s fid' with
                      | Some fn' =>
                        crestrict_inner n s fe f_neg' fn' (nstored fn') ve (negb (etag ve)) nn
                      | None => None
                      end
                    | RT _ => Some (CRDone (mkEdge (eref fe) f_neg'))
                    end
                  | None => None
                  end
                | RT _ => Some (CRDone (mkEdge (eref fe) f_neg'))
                end
              else
                Some (CRDone (mkEdge (eref ft) (xorb f_neg (etag ft))))
            end
          | _ => None
          end
      | _ => None
      end.
Proof. reflexivity. Qed.

(** [restr] commutes with every pointwise post-processing (complementing) *)
Lemma restr_map : forall (u : bool -> bool) M phi c,
  restr M (fun c0 => u (phi c0)) c = u (restr M phi c).
Proof.
  intros u M phi. induction M as [|[l b] r IH]; intros c; [reflexivity|].
  simpl. unfold cofn. apply IH.
Qed.

Definition crinner_post (s : snap) (lvl0 : nat) (phi : cfun) (M : list (nat * bool)) (res : crinner) : Prop :=
  match res with
  | CRDone r => DenC s r (restr M phi)
  | CRRec vars' f' f_neg' fnode' =>
    exists fid' vid' vnd' phi' M',
      eref f' = RN fid' /\ find_node s fid' = Some fnode' /\
      eref vars' = RN vid' /\ find_node s vid' = Some vnd' /\
      DenC s (mkEdge (eref f') f_neg') phi' /\ LChainC s (eref vars') (etag vars') M' /\
      nlevel fnode' < nlevel vnd' /\ lvl0 <= nlevel fnode' /\
      forall c, bchoice c -> restr M phi c = restr M' phi' c
  end.

Lemma crinner_post_weaken : forall s lvl0 lvl1 phi M phi1 M1 res,
  crinner_post s lvl1 phi1 M1 res -> lvl0 <= lvl1 ->
  (forall c, bchoice c -> restr M phi c = restr M1 phi1 c) ->
  crinner_post s lvl0 phi M res.
Proof.
  intros s lvl0 lvl1 phi M phi1 M1 [r|vars' f' fn' fnode'] P Hle E; simpl in *.
  - apply (denc_ext s r _ _ P). intros c Hc. symmetry. apply E. exact Hc.
  - destruct P as [fid' [vid' [vnd' [phi' [M' [A1 [A2 [A3 [A4 [A5 [A6 [A7 [A8 A9]]]]]]]]]]]]].
    exists fid', vid', vnd', phi', M'. repeat (split; [assumption|]). split; [lia|].
    intros c Hc. rewrite E by exact Hc. apply A9. exact Hc.
Qed.

Section InnerSec.
Variable s : snap.
Hypothesis B : BcOK s.

Theorem crestrict_inner_ok : forall fuel f f_neg fid fnd vars vars_neg vid vnd phi M,
  eref f = RN fid -> find_node s fid = Some fnd -> eref vars = RN vid -> find_node s vid = Some vnd ->
  DenC s (mkEdge (eref f) f_neg) phi -> LChainC s (RN vid) vars_neg M ->
  (nlevels s - nlevel fnd) + (nlevels s - nlevel vnd) < fuel ->
  exists res, crestrict_inner fuel s f f_neg fnd (nlevel fnd) vars vars_neg vnd = Some res /\
              crinner_post s (nlevel fnd) phi M res.
Proof.
  pose proof (bc_wf s B) as H.
  induction fuel as [|n IH]; intros f f_neg fid fnd vars vars_neg vid vnd phi M Erf Ef Erv Ev D V Hfuel; [lia|].
  pose proof (denc_cext s _ phi H D) as Xp.
  destruct (denc_node s _ fid fnd phi B D Erf Ef) as [Hlf [Ip [ft [fe [Efch [Dft [Dfe [Lft Lfe]]]]]]]].
  simpl etag in Dft, Dfe. unfold retag in Dft, Dfe.
  pose proof (wf_level s H vid vnd Ev) as Hlv.
  rewrite crestrict_inner_S. cbv zeta. rewrite (wf_stored s H vid vnd Ev).
  destruct (Nat.ltb_spec (nlevel fnd) (nlevel vnd)) as [Hlt|Hge].
  { eexists. split; [reflexivity|]. simpl.
    exists fid, vid, vnd, phi, M.
    split; [exact Erf|]. split; [exact Ef|]. split; [exact Erv|]. split; [exact Ev|].
    split; [exact D|]. split; [rewrite Erv; exact V|]. split; [exact Hlt|]. split; [lia|]. reflexivity. }
  destruct (bcdd_children s vid vnd B Ev) as [vt [ve Evch]]. rewrite Evch.
  destruct (children2 s vid vnd vt ve H Ev Evch) as [[Ovt Lvt] [Ove Lve]].
  pose proof (lchainc_asc s B _ _ _ V) as Asc. rewrite (rlevel_node s vid vnd Ev) in Asc.
  pose proof (lchainc_N_inv s vid vars_neg vnd vt ve M V Ev Evch) as Inv.
  destruct (Nat.ltb_spec (nlevel vnd) (nlevel fnd)) as [Hvf|Hfv].
  - (* vars above f: the literal is irrelevant *)
    assert (Hnd : nodep phi (nlevel vnd)) by (apply (indep_nodep phi (nlevel fnd)); assumption).
    assert (Done : forall b, crinner_post s (nlevel fnd) phi [(nlevel vnd, b)] (CRDone (mkEdge (eref f) f_neg))).
    { intros b. simpl. apply (denc_ext s _ phi _ D). intros c Hc. symmetry.
      apply (restr_drop [] phi (nlevel vnd) b Xp Hnd c Hc). }
    assert (Skip : forall (w : edge) wn wid nn M1 b, eref w = RN wid -> find_node s wid = Some nn ->
               nlevel vnd < nlevel nn -> LChainC s (RN wid) wn M1 ->
               exists res, crestrict_inner n s f f_neg fnd (nlevel fnd) w wn nn = Some res /\
                           crinner_post s (nlevel fnd) phi ((nlevel vnd, b) :: M1) res).
    { intros w wn wid nn M1 b Erw En Ln V1.
      destruct (IH f f_neg fid fnd w wn wid nn phi M1 Erf Ef Erw En D V1 ltac:(lia)) as [res [E P]].
      exists res. split; [exact E|].
      apply (crinner_post_weaken s _ _ phi _ phi M1 res P (le_n _)).
      intros c Hc. apply restr_drop; assumption. }
    destruct (eref vt) as [tt|tid] eqn:Et.
    + destruct vars_neg.
      * destruct Inv as [M1 [EM V1]]. subst M.
        destruct (eref ve) as [et|eid] eqn:Ee.
        -- rewrite (lchainc_T_inv s et _ M1 V1). eexists. split; [reflexivity | apply Done].
        -- destruct Ove as [nn En]. rewrite En. rewrite (rlevel_node s eid nn En) in Lve.
           apply (Skip ve (negb (etag ve)) eid nn M1 false Ee En Lve V1).
      * subst M. eexists. split; [reflexivity | apply Done].
    + destruct Inv as [M1 [EM V1]]. subst M.
      destruct Ovt as [nn En]. rewrite En. rewrite (rlevel_node s tid nn En) in Lvt.
      apply (Skip vt (xorb vars_neg (etag vt)) tid nn M1 true Et En Lvt V1).
  - (* the top literal is on the level of f *)
    assert (Elv : nlevel vnd = nlevel fnd) by lia. set (lvl := nlevel fnd) in *. rewrite Efch.
    (* continuing with the selected child [g] (accumulated polarity [gn]) and the rest of the cube *)
    assert (Cont : forall (g : edge) (gn : bool) psi (v' : edge) vn' vid' nn M1 b,
               DenC s (mkEdge (eref g) gn) psi -> lvl < rlevel s (eref g) ->
               eref v' = RN vid' -> find_node s vid' = Some nn -> nlevel vnd < nlevel nn ->
               LChainC s (RN vid') vn' M1 ->
               (forall c, bchoice c -> restr ((nlevel vnd, b) :: M1) phi c = restr M1 psi c) ->
               exists res,
                 match eref g with
                 | RN fid' =>
                   match find_node s fid' with
                   | Some fn' => crestrict_inner n s g gn fn' (nstored fn') v' vn' nn
                   | None => None
                   end
                 | RT _ => Some (CRDone (mkEdge (eref g) gn))
                 end = Some res /\ crinner_post s lvl phi ((nlevel vnd, b) :: M1) res).
    { intros g gn psi v' vn' vid' nn M1 b Dp Lp Erv' En Ln V1 HE. pose proof (proj1 Dp) as Op. simpl in Op.
      destruct (eref g) as [tf|fid'] eqn:Erg.
      - eexists. split; [reflexivity|]. simpl.
        apply (denc_ext s _ psi _ Dp). intros c Hc.
        change (cofn (restr M1 phi) (nlevel vnd) (lit_ix b) c) with (restr ((nlevel vnd, b) :: M1) phi c).
        rewrite HE by exact Hc. symmetry.
        apply restr_nodep_all; [apply (denc_cext s _ psi H Dp) | | exact Hc].
        intros l. apply (denc_term_nodep s (mkEdge (RT tf) gn) tf psi l Dp eq_refl).
      - destruct Op as [fn' Efn]. rewrite Efn, (wf_stored s H fid' fn' Efn).
        rewrite (rlevel_node s fid' fn' Efn) in Lp.
        destruct (IH g gn fid' fn' v' vn' vid' nn psi M1 Erg Efn Erv' En) as [res [E P]].
        + rewrite Erg. exact Dp.
        + exact V1.
        + lia.
        + exists res. split; [exact E|].
          apply (crinner_post_weaken s lvl (nlevel fn') phi _ psi M1 res P ltac:(lia) HE). }
    destruct (eref vt) as [tt|tid] eqn:Et.
    + destruct vars_neg.
      * (* negative literal: else branch *)
        destruct Inv as [M1 [EM V1]]. subst M. simpl in Asc. destruct Asc as [_ Asc].
        assert (HE : forall c, bchoice c ->
                   restr ((nlevel vnd, false) :: M1) phi c = restr M1 (cofn phi lvl 1) c).
        { intros c Hc. rewrite Elv. apply (restr_push M1 phi lvl false Xp); [|exact Hc].
          apply (asc_notin _ _ _ Asc). lia. }
        cbv zeta.
        destruct (eref ve) as [et|eid] eqn:Ee.
        -- rewrite (lchainc_T_inv s et _ M1 V1) in *.
           eexists. split; [reflexivity|]. simpl. rewrite Elv. exact Dfe.
        -- destruct Ove as [nn En]. rewrite En. rewrite (rlevel_node s eid nn En) in Lve.
           apply (Cont fe (xorb f_neg (etag fe)) _ ve (negb (etag ve)) eid nn M1 false Dfe Lfe Ee En Lve V1 HE).
      * (* last literal, positive: then branch *)
        subst M. eexists. split; [reflexivity|]. simpl. rewrite Elv. exact Dft.
    + (* positive literal, more below: then branch *)
      destruct Inv as [M1 [EM V1]]. subst M. simpl in Asc. destruct Asc as [_ Asc].
      assert (HE : forall c, bchoice c ->
                 restr ((nlevel vnd, true) :: M1) phi c = restr M1 (cofn phi lvl 0) c).
      { intros c Hc. rewrite Elv. apply (restr_push M1 phi lvl true Xp); [|exact Hc].
        apply (asc_notin _ _ _ Asc). lia. }
      destruct Ovt as [nn En]. rewrite En. rewrite (rlevel_node s tid nn En) in Lvt. cbv zeta.
      apply (Cont ft (xorb f_neg (etag ft)) _ vt (xorb vars_neg (etag vt)) tid nn M1 true Dft Lft Et En Lvt V1 HE).
Qed.

End InnerSec.

Section R.
Variable lt : edge -> edge -> bool.
Variable C : Type.
Variable cget : C -> N -> list edge -> option edge.
Variable cadd : C -> N -> list edge -> edge -> C.
Hypothesis Hlossy : lossyC cget cadd.
Variable Sg : N -> option (list (nat * edge)).

Notation QOKC := (QCacheOKC cget Sg).
Notation qcres := (qcresult_ok cget Sg).

Lemma crestrict_S : forall n s c f vars,
  crestrict C cget cadd (S n) s c f vars =
    match eref f, eref vars with
    | RN fid, RN vid =>
      match find_node s fid, find_node s vid with
      | Some fnode, Some vnode =>
        match crestrict_inner (S (nlevels s + nlevels s)) s f (etag f) fnode (nstored fnode)
                              vars (etag vars) vnode with
        | None => None
        | Some (CRDone r) => Some (s, c, r)
        | Some (CRRec vars' f' f_neg fnode') =>
          let f_untagged := untag f' in
          match cget c ccode_restrict [f_untagged; vars'] with
          | Some r => Some (s, c, retag f_neg r)
          | None =>
            match nchildren fnode' with
            | [ft; fe] =>
              match crestrict C cget cadd n s c ft vars' with
              | None => None
              | Some (s1, c1, t) =>
                match crestrict C cget cadd n s1 c1 fe vars' with
                | None => None
                | Some (s2, c2, e) =>
                  let '(s3, h) := cmk_node s2 (nstored fnode') t e in
                  Some (s3, cadd c2 ccode_restrict [f_untagged; vars'] h, retag f_neg h)
                end
              end
            | _ => None
            end
          end
        end
      | _, _ => None
      end
    | _, _ => Some (s, c, f)
    end.
Proof. reflexivity. Qed.

Theorem crestrict_ok : forall fuel s c f vars phi M,
  BcOK s -> QOKC s c -> DenC s f phi -> ref_ok s (eref vars) -> LChainC s (eref vars) (etag vars) M ->
  nlevels s - rlevel s (eref f) < fuel ->
  qcres s (crestrict C cget cadd fuel s c f vars) (restr M phi).
Proof.
  induction fuel as [|n IH]; intros s c f vars phi M B Q D Ov V Hfuel; [lia|].
  pose proof (bc_wf s B) as H. pose proof (denc_cext s f phi H D) as Xp.
  rewrite crestrict_S. destruct (eref f) as [tf|fid] eqn:Erf.
  { apply (qcresult_ok_here C cget Sg s c _ _ B Q). apply (denc_ext s _ phi _ D).
    intros c0 Hc. symmetry. apply restr_nodep_all; auto. intros l. apply (denc_term_nodep s f tf phi l D Erf). }
  destruct (eref vars) as [tv|vid] eqn:Erv.
  { rewrite (lchainc_T_inv s tv _ M V). apply (qcresult_ok_here C cget Sg s c _ _ B Q). exact D. }
  pose proof (proj1 D) as Of. rewrite Erf in Of. destruct Of as [fnd Ef]. destruct Ov as [vnd Ev].
  rewrite Ef, Ev. rewrite (wf_stored s H fid fnd Ef). rewrite (rlevel_node s fid fnd Ef) in Hfuel.
  assert (D0 : DenC s (mkEdge (eref f) (etag f)) phi) by (rewrite edge_eta; exact D).
  destruct (crestrict_inner_ok s B (S (nlevels s + nlevels s)) f (etag f) fid fnd vars (etag vars) vid vnd
              phi M Erf Ef Erv Ev D0 V ltac:(lia)) as [res [Eri P]].
  rewrite Eri. destruct res as [r|vars' f' f_neg fnode']; simpl in P.
  { apply (qcresult_ok_here C cget Sg s c _ _ B Q). exact P. }
  destruct P as [fid' [vid' [vnd' [phi' [M' [Erf' [Ef' [Erv' [Ev' [D' [V' [Hlt [Hle HE]]]]]]]]]]]]].
  apply (qcresult_ok_ext C cget Sg s _ (restr M' phi')); [|intros c0 Hc; symmetry; apply HE; exact Hc].
  cbv zeta.
  (* the untagged node and its function *)
  set (psi := fun c0 : nat -> nat => xorb f_neg (phi' c0)).
  assert (Du : DenC s (untag f') psi).
  { pose proof (denc_retag s _ phi' f_neg D') as R. unfold retag in R. simpl in R.
    rewrite xorb_nilpotent in R. exact R. }
  assert (Hback : forall c0, bchoice c0 -> xorb f_neg (restr M' psi c0) = restr M' phi' c0).
  { intros c0 Hc. unfold psi. rewrite (restr_map (xorb f_neg) M' phi' c0).
    rewrite <- xorb_assoc, xorb_nilpotent, xorb_false_l. reflexivity. }
  pose proof (denc_cext s _ psi H Du) as Xpsi.
  destruct (denc_node s (untag f') fid' fnode' psi B Du Erf' Ef') as [Hlv' [Ip [ft [fe [Ech [Dft [Dfe [Lft Lfe]]]]]]]].
  simpl etag in Dft, Dfe. rewrite retag_false in Dft, Dfe.
  set (lvl := nlevel fnode') in *.
  destruct (cget c ccode_restrict [untag f'; vars']) as [r|] eqn:Ecache.
  { destruct (proj1 (proj2 (proj2 Q _ _ _ Ecache)) (untag f') vars' eq_refl eq_refl)
      as [phi0 [M0 [D0' [V0 Dr]]]].
    apply (qcresult_ok_here C cget Sg s c _ _ B Q).
    rewrite (lchainc_fun s _ _ _ _ V0 V') in Dr.
    apply (denc_ext s _ _ _ (denc_retag s r _ f_neg Dr)). intros c0 Hc.
    rewrite <- (Hback c0 Hc). f_equal. apply restr_ext; [|exact Hc].
    apply (denc_unique s _ phi0 psi D0' Du). }
  rewrite Ech, (wf_stored s H fid' fnode' Ef'). fold lvl.
  assert (Ov' : ref_ok s (eref vars')) by (rewrite Erv'; exists vnd'; exact Ev').
  refine (qcresult_ok_bind C cget Sg s _ _ _ _ (IH s c ft vars' _ M' B Q Dft Ov' V' ltac:(lia)) _).
  intros s1 c1 t B1 X1 Q1 D1.
  refine (qcresult_ok_bind C cget Sg s1 _ _ _ _
            (IH s1 c1 fe vars' _ M' B1 Q1 (denc_extends s s1 _ _ B X1 Dfe) (ext_ref_ok _ _ _ X1 Ov')
                (lchainc_extends _ _ _ _ _ X1 V') (fuel_extends s s1 _ n X1 (proj1 Dfe) ltac:(lia))) _).
  intros s2 c2 e B2 X2 Q2 D2.
  assert (X02 : extends s s2) by (eapply extends_trans; eauto).
  (* the node is cached as built; the caller gets it with the polarity of [f] *)
  destruct (cmk_node s2 lvl t e) as [s3 h] eqn:Em.
  assert (II : forall i, i < 2 -> indep (restr M' (cofn psi lvl i)) (S lvl)).
  { intros i Hi. apply indep_restr. apply (indep_cofn psi lvl lvl i Ip (le_n _) Hi). }
  destruct (cnode_step s2 lvl t e _ _ s3 h B2 ltac:(rewrite (ext_nlevels _ _ X02); exact Hlv')
              (denc_extends s1 s2 _ _ B1 X2 D1) D2 (II 0 ltac:(lia)) (II 1 ltac:(lia)) Em)
    as [B3 [X3 Dh]].
  assert (X03 : extends s s3) by (eapply extends_trans; eauto).
  assert (Dres : DenC s3 h (restr M' psi)).
  { apply (denc_ext s3 h _ _ Dh). intros c0 Hc. apply restr_shannon; [exact Xpsi | | exact Hc].
    pose proof (lchainc_asc s B _ _ _ V') as Asc. rewrite Erv', (rlevel_node s vid' vnd' Ev') in Asc.
    apply (asc_notin _ _ _ Asc). exact Hlt. }
  exists s3, (cadd c2 ccode_restrict [untag f'; vars'] h), (retag f_neg h).
  split; [reflexivity|]. split; [exact B3|]. split; [exact X3|]. split.
  - apply (qcacheokc_add C cget cadd Hlossy Sg s3 c2 _ _ _
             (qcacheokc_extends C cget Sg s2 s3 c2 B2 X3 Q2)); [unfold ccode_restrict; lia|].
    apply (cqentry_restrict Sg s3 (untag f') vars' h psi M');
      [apply (denc_extends s s3 _ _ B X03 Du) | apply (lchainc_extends _ _ _ _ _ X03 V') | exact Dres].
  - apply (denc_ext s3 _ _ _ (denc_retag s3 h _ f_neg Dres)). exact Hback.
Qed.

End R.
