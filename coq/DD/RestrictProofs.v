(** * Soundness of [restrict] (with its tail-recursive [restrict_inner]) of DD/Quant.v

    [restrict_ok]: for every BddOK table, [QCacheOK] cache, operand [f] and
    reference [vars] (read as a cube of literals the way the code walks it,
    [LChain]), with fuel above the height of [f], the result denotes the
    cofactor of [f] w.r.t. the literals of [vars] ([restr]); table only
    extended, invariants preserved. *)

From Coq Require Import List NArith PArith Bool Arith Lia FMapPositive.
From OxiVerif Require Import DD.Table DD.TableProofs DD.Canon DD.Sem DD.Build DD.BuildProofs
  DD.Apply DD.ApplyProofs DD.Quant DD.QuantLemmas DD.QuantProofs.
Import ListNotations.

Lemma restrict_inner_S : forall n s f fnode flevel vars vnode,
  restrict_inner (S n) s f fnode flevel vars vnode =
    let vlevel := nstored vnode in
    if Nat.ltb flevel vlevel then Some (RRec vars f fnode)
    else
      match nchildren vnode with
      | [vt; ve] =>
        if Nat.ltb vlevel flevel then
          match eref vt with
          | RN tid =>
            match find_node s tid with
            | Some nn => restrict_inner n s f fnode flevel (eref vt) nn
            | None => None
            end
          | RT _ =>
            match view s (eref vt) with
            | Some (VT true) => Some (RDone f)
            | Some (VT false) =>
              match eref ve with
              | RN eid =>
                match find_node s eid with
                | Some nn => restrict_inner n s f fnode flevel (eref ve) nn
                | None => None
                end
              | RT _ => Some (RDone f)
              end
            | _ => None
            end
          end
        else
          match nchildren fnode with
          | [ft; fe] =>
            match eref vt with
            | RN tid =>
              match find_node s tid with
              | Some nn =>
                match eref ft with
                | RN fid' =>
                  match find_node s fid' with
                  | Some fn' => restrict_inner n s (eref ft) fn' (nstored fn') (eref vt) nn
                  | None => None
                  end
                | RT _ => Some (RDone (eref ft))
                end
              | None => None
              end
            | RT _ =>
              match view s (eref vt) with
              | Some (VT true) => Some (RDone (eref ft))
              | Some (VT false) =>
                match eref ve with
                | RN eid =>
                  match find_node s eid with
                  | Some nn =>
                    match eref fe with
                    | RN fid' =>
                      match find_node s fid' with
                      | Some fn' => restrict_inner n s (eref fe) fn' (nstored fn') (eref ve) nn
                      | None => None
                      end
                    | RT _ => Some (RDone (eref fe))
                    end
                  | None => None
                  end
                | RT _ => Some (RDone (eref fe))
                end
              | _ => None
              end
            end
          | _ => None
          end
      | _ => None
      end.
Proof. reflexivity. Qed.

Lemma lchain_T_inv : forall s t M, LChain s (RT t) M -> M = [].
Proof. intros s t M V. inversion V. reflexivity. Qed.

Lemma lchain_N_inv : forall s id nd t e M, LChain s (RN id) M -> find_node s id = Some nd ->
  nchildren nd = [t; e] ->
  (exists M1, M = (nlevel nd, true) :: M1 /\
     (view s (eref t) = Some VI \/ view s (eref t) = Some (VT true)) /\ LChain s (eref t) M1) \/
  (exists M1, M = (nlevel nd, false) :: M1 /\ view s (eref t) = Some (VT false) /\ LChain s (eref e) M1).
Proof.
  intros s id nd t e M V En Ech.
  inversion V as [|id' nd' t' e' M1 En' Ech' Hv V'|id' nd' t' e' M1 En' Ech' Hv V']; subst;
    rewrite En in En'; inversion En'; subst nd'; rewrite Ech in Ech'; inversion Ech'; subst t' e'.
  - left. exists M1. auto.
  - right. exists M1. auto.
Qed.

Lemma lchain_fun : forall s r M M', LChain s r M -> LChain s r M' -> M = M'.
Proof.
  intros s r M M' V. revert M'.
  induction V as [t|id nd t e M En Ech Hv V IH|id nd t e M En Ech Hv V IH]; intros M' V'.
  - inversion V'. reflexivity.
  - destruct (lchain_N_inv s id nd t e M' V' En Ech) as [[M1 [-> [_ V1]]]|[M1 [-> [Hv' _]]]].
    + f_equal. apply IH. exact V1.
    + destruct Hv as [Hv|Hv]; rewrite Hv in Hv'; discriminate.
  - destruct (lchain_N_inv s id nd t e M' V' En Ech) as [[M1 [-> [Hv' _]]]|[M1 [-> [_ V1]]]].
    + destruct Hv' as [Hv'|Hv']; rewrite Hv in Hv'; discriminate.
    + f_equal. apply IH. exact V1.
Qed.

(** a function that depends on no level is its own cofactor *)
Lemma restr_nodep_all : forall M psi, cext psi -> (forall l, nodep psi l) ->
  forall c, bchoice c -> restr M psi c = psi c.
Proof.
  induction M as [|[l b] r IH]; intros psi X Hn c Hc; [reflexivity|].
  rewrite restr_drop by auto. apply IH; auto.
Qed.

(** what [restrict_inner] promises *)
Definition rinner_post (s : snap) (lvl0 : nat) (phi : cfun) (M : list (nat * bool)) (res : rinner) : Prop :=
  match res with
  | RDone r => Den s r (restr M phi)
  | RRec vars' f' fnode' =>
    exists fid' vid' vnd' phi' M',
      f' = RN fid' /\ find_node s fid' = Some fnode' /\
      vars' = RN vid' /\ find_node s vid' = Some vnd' /\
      Den s f' phi' /\ LChain s vars' M' /\
      nlevel fnode' < nlevel vnd' /\ lvl0 <= nlevel fnode' /\
      forall c, bchoice c -> restr M phi c = restr M' phi' c
  end.

Lemma rinner_post_weaken : forall s lvl0 lvl1 phi M phi1 M1 res,
  rinner_post s lvl1 phi1 M1 res -> lvl0 <= lvl1 ->
  (forall c, bchoice c -> restr M phi c = restr M1 phi1 c) ->
  rinner_post s lvl0 phi M res.
Proof.
  intros s lvl0 lvl1 phi M phi1 M1 [r|vars' f' fnode'] P Hle E; simpl in *.
  - apply (den_ext s r _ _ P). intros c Hc. symmetry. apply E. exact Hc.
  - destruct P as [fid' [vid' [vnd' [phi' [M' [A1 [A2 [A3 [A4 [A5 [A6 [A7 [A8 A9]]]]]]]]]]]]].
    exists fid', vid', vnd', phi', M'. repeat (split; [assumption|]). split; [lia|].
    intros c Hc. rewrite E by exact Hc. apply A9. exact Hc.
Qed.

Section InnerSec.
Variable s : snap.
Hypothesis B : BddOK s.

Lemma view_RN : forall id, view s (RN id) = Some VI.
Proof. reflexivity. Qed.

Lemma view_RT_not_VI : forall t, view s (RT t) <> Some VI.
Proof. intros t E. destruct (view_VI s (RT t) E) as [id Hid]. discriminate. Qed.

Theorem restrict_inner_ok : forall fuel fid fnd vid vnd phi M,
  find_node s fid = Some fnd -> find_node s vid = Some vnd ->
  Den s (RN fid) phi -> LChain s (RN vid) M ->
  (nlevels s - nlevel fnd) + (nlevels s - nlevel vnd) < fuel ->
  exists res, restrict_inner fuel s (RN fid) fnd (nlevel fnd) (RN vid) vnd = Some res /\
              rinner_post s (nlevel fnd) phi M res.
Proof.
  pose proof (bo_wf s B) as H.
  induction fuel as [|n IH]; intros fid fnd vid vnd phi M Ef Ev D V Hfuel; [lia|].
  pose proof (den_cext s _ phi H D) as Xp.
  destruct (den_node s fid fnd phi B D Ef) as [Hlf [Ip [ft [fe [Efch [Dft [Dfe [Lft Lfe]]]]]]]].
  pose proof (wf_level s H vid vnd Ev) as Hlv.
  rewrite restrict_inner_S. cbv zeta. rewrite (wf_stored s H vid vnd Ev).
  destruct (Nat.ltb_spec (nlevel fnd) (nlevel vnd)) as [Hlt|Hge].
  { exists (RRec (RN vid) (RN fid) fnd). split; [reflexivity|]. simpl.
    exists fid, vid, vnd, phi, M.
    split; [reflexivity|]. split; [exact Ef|]. split; [reflexivity|]. split; [exact Ev|].
    split; [exact D|]. split; [exact V|]. split; [exact Hlt|]. split; [lia|]. reflexivity. }
  destruct (bdd_children s vid vnd B Ev) as [vt [ve Evch]]. rewrite Evch.
  destruct (children2 s vid vnd vt ve H Ev Evch) as [[Ovt Lvt] [Ove Lve]].
  pose proof (lchain_asc s B _ _ V) as Asc. rewrite (rlevel_node s vid vnd Ev) in Asc.
  destruct (Nat.ltb_spec (nlevel vnd) (nlevel fnd)) as [Hvf|Hfv].
  - (* vars above f: the literal is irrelevant *)
    assert (Hnd : nodep phi (nlevel vnd)) by (apply (indep_nodep phi (nlevel fnd)); assumption).
    (* whatever its sign the literal is dropped: done, or on with the rest of the cube *)
    assert (Done : forall b, rinner_post s (nlevel fnd) phi [(nlevel vnd, b)] (RDone (RN fid))).
    { intros b. simpl. apply (den_ext s _ phi _ D). intros c Hc. symmetry.
      apply (restr_drop [] phi (nlevel vnd) b Xp Hnd c Hc). }
    assert (Skip : forall wid nn M1 b, find_node s wid = Some nn -> nlevel vnd < nlevel nn ->
               LChain s (RN wid) M1 ->
               exists res, restrict_inner n s (RN fid) fnd (nlevel fnd) (RN wid) nn = Some res /\
                           rinner_post s (nlevel fnd) phi ((nlevel vnd, b) :: M1) res).
    { intros wid nn M1 b En Ln V1.
      destruct (IH fid fnd wid nn phi M1 Ef En D V1 ltac:(lia)) as [res [E P]].
      exists res. split; [exact E|].
      apply (rinner_post_weaken s _ _ phi _ phi M1 res P (le_n _)).
      intros c Hc. apply restr_drop; assumption. }
    destruct (lchain_N_inv s vid vnd vt ve M V Ev Evch) as [[M1 [EM [Hv V1]]]|[M1 [EM [Hv V1]]]];
      subst M.
    + (* positive literal *)
      destruct (eref vt) as [tt|tid] eqn:Et.
      * destruct Hv as [Hv|Hv]; [exfalso; apply (view_RT_not_VI tt Hv)|].
        rewrite Hv, (lchain_T_inv s tt M1 V1). exists (RDone (RN fid)). split; [reflexivity | apply Done].
      * destruct Ovt as [nn En]. rewrite En. rewrite (rlevel_node s tid nn En) in Lvt.
        apply (Skip tid nn M1 true En Lvt V1).
    + (* negative literal *)
      destruct (eref vt) as [tt|tid] eqn:Et; [|rewrite view_RN in Hv; discriminate]. rewrite Hv.
      destruct (eref ve) as [et|eid] eqn:Ee.
      * rewrite (lchain_T_inv s et M1 V1). exists (RDone (RN fid)). split; [reflexivity | apply Done].
      * destruct Ove as [nn En]. rewrite En. rewrite (rlevel_node s eid nn En) in Lve.
        apply (Skip eid nn M1 false En Lve V1).
  - (* the top literal is on the level of f *)
    assert (Elv : nlevel vnd = nlevel fnd) by lia. set (lvl := nlevel fnd) in *. rewrite Efch.
    (* continuing below with the selected child [f'] and the rest of the cube *)
    assert (Cont : forall f' psi vid' nn M1 b,
               Den s f' psi -> lvl < rlevel s f' ->
               find_node s vid' = Some nn -> nlevel vnd < nlevel nn -> LChain s (RN vid') M1 ->
               (forall c, bchoice c -> restr ((nlevel vnd, b) :: M1) phi c = restr M1 psi c) ->
               exists res,
                 match f' with
                 | RN fid' =>
                   match find_node s fid' with
                   | Some fn' => restrict_inner n s f' fn' (nstored fn') (RN vid') nn
                   | None => None
                   end
                 | RT _ => Some (RDone f')
                 end = Some res /\ rinner_post s lvl phi ((nlevel vnd, b) :: M1) res).
    { intros f' psi vid' nn M1 b Dp Lp En Ln V1 HE. destruct f' as [tf|fid'].
      - exists (RDone (RT tf)). split; [reflexivity|]. simpl.
        apply (den_ext s _ psi _ Dp). intros c Hc. change (cofn (restr M1 phi) (nlevel vnd) (lit_ix b) c)
          with (restr ((nlevel vnd, b) :: M1) phi c). rewrite HE by exact Hc. symmetry.
        apply restr_nodep_all; [apply (den_cext s _ psi H Dp) | | exact Hc].
        intros l. apply (den_term_nodep s tf psi l Dp).
      - destruct (proj1 Dp) as [fn' Efn]. rewrite Efn, (wf_stored s H fid' fn' Efn).
        rewrite (rlevel_node s fid' fn' Efn) in Lp.
        destruct (IH fid' fn' vid' nn psi M1 Efn En Dp V1 ltac:(lia)) as [res [E P]].
        exists res. split; [exact E|].
        apply (rinner_post_weaken s lvl (nlevel fn') phi _ psi M1 res P ltac:(lia) HE). }
    destruct (lchain_N_inv s vid vnd vt ve M V Ev Evch) as [[M1 [EM [Hv V1]]]|[M1 [EM [Hv V1]]]];
      subst M; simpl in Asc; destruct Asc as [_ Asc].
    + (* positive literal: then-branch *)
      assert (HE : forall c, bchoice c ->
                 restr ((nlevel vnd, true) :: M1) phi c = restr M1 (cofn phi lvl 0) c).
      { intros c Hc. rewrite Elv. apply (restr_push M1 phi lvl true Xp); [|exact Hc].
        apply (asc_notin _ _ _ Asc). lia. }
      destruct (eref vt) as [tt|tid] eqn:Et.
      * destruct Hv as [Hv|Hv]; [exfalso; apply (view_RT_not_VI tt Hv)|]. rewrite Hv.
        rewrite (lchain_T_inv s tt M1 V1) in *.
        exists (RDone (eref ft)). split; [reflexivity|]. simpl. rewrite Elv. exact Dft.
      * destruct Ovt as [nn En]. rewrite En. rewrite (rlevel_node s tid nn En) in Lvt.
        apply (Cont (eref ft) _ tid nn M1 true Dft Lft En Lvt V1 HE).
    + (* negative literal: else-branch *)
      assert (HE : forall c, bchoice c ->
                 restr ((nlevel vnd, false) :: M1) phi c = restr M1 (cofn phi lvl 1) c).
      { intros c Hc. rewrite Elv. apply (restr_push M1 phi lvl false Xp); [|exact Hc].
        apply (asc_notin _ _ _ Asc). lia. }
      destruct (eref vt) as [tt|tid] eqn:Et; [|rewrite view_RN in Hv; discriminate]. rewrite Hv.
      destruct (eref ve) as [et|eid] eqn:Ee.
      * rewrite (lchain_T_inv s et M1 V1) in *.
        exists (RDone (eref fe)). split; [reflexivity|]. simpl. rewrite Elv. exact Dfe.
      * destruct Ove as [nn En]. rewrite En. rewrite (rlevel_node s eid nn En) in Lve.
        apply (Cont (eref fe) _ eid nn M1 false Dfe Lfe En Lve V1 HE).
Qed.

End InnerSec.

Section R.
Variable gt : ref -> ref -> bool.
Variable C : Type.
Variable cget : C -> N -> list ref -> option ref.
Variable cadd : C -> N -> list ref -> ref -> C.
Hypothesis Hlossy : lossy cget cadd.
Variable Sg : N -> option (list (nat * ref)).

Notation QOK := (QCacheOK cget Sg).
Notation qres := (qresult_ok cget Sg).

Lemma restrict_S : forall n s c f vars,
  restrict C cget cadd (S n) s c f vars =
    match f, vars with
    | RN fid, RN vid =>
      match find_node s fid, find_node s vid with
      | Some fnode, Some vnode =>
        match restrict_inner (S (nlevels s + nlevels s)) s f fnode (nstored fnode) vars vnode with
        | None => None
        | Some (RDone r) => Some (s, c, r)
        | Some (RRec vars' f' fnode') =>
          match cget c code_restrict [f'; vars'] with
          | Some r => Some (s, c, r)
          | None =>
            match nchildren fnode' with
            | [ft; fe] =>
              match restrict C cget cadd n s c (eref ft) vars' with
              | None => None
              | Some (s1, c1, t) =>
                match restrict C cget cadd n s1 c1 (eref fe) vars' with
                | None => None
                | Some (s2, c2, e) =>
                  let '(s3, h) := mk_node s2 (nstored fnode') [E t; E e] in
                  Some (s3, cadd c2 code_restrict [f'; vars'] (eref h), eref h)
                end
              end
            | _ => None
            end
          end
        end
      | _, _ => None
      end
    | _, _ => Some (s, c, f)
    end.
Proof. reflexivity. Qed.

Theorem restrict_ok : forall fuel s c f vars phi M,
  BddOK s -> QOK s c -> Den s f phi -> ref_ok s vars -> LChain s vars M ->
  nlevels s - rlevel s f < fuel ->
  qres s (restrict C cget cadd fuel s c f vars) (restr M phi).
Proof.
  induction fuel as [|n IH]; intros s c f vars phi M B Q D Ov V Hfuel; [lia|].
  pose proof (bo_wf s B) as H. pose proof (den_cext s f phi H D) as Xp.
  rewrite restrict_S. destruct f as [tf|fid].
  { apply (qresult_ok_here C cget Sg s c _ _ B Q). apply (den_ext s _ phi _ D).
    intros c0 Hc. symmetry. apply restr_nodep_all; auto. intros l. apply (den_term_nodep s tf phi l D). }
  destruct vars as [tv|vid].
  { rewrite (lchain_T_inv s tv M V). apply (qresult_ok_here C cget Sg s c _ _ B Q). exact D. }
  destruct (proj1 D) as [fnd Ef]. destruct Ov as [vnd Ev]. rewrite Ef, Ev.
  rewrite (wf_stored s H fid fnd Ef). rewrite (rlevel_node s fid fnd Ef) in Hfuel.
  destruct (restrict_inner_ok s B (S (nlevels s + nlevels s)) fid fnd vid vnd phi M Ef Ev D V ltac:(lia))
    as [res [Eri P]].
  rewrite Eri. destruct res as [r|vars' f' fnode']; simpl in P.
  { apply (qresult_ok_here C cget Sg s c _ _ B Q). exact P. }
  destruct P as [fid' [vid' [vnd' [phi' [M' [-> [Ef' [-> [Ev' [D' [V' [Hlt [Hle HE]]]]]]]]]]]]].
  apply (qresult_ok_ext C cget Sg s _ (restr M' phi')); [|intros c0 Hc; symmetry; apply HE; exact Hc].
  pose proof (den_cext s _ phi' H D') as Xp'.
  destruct (den_node s fid' fnode' phi' B D' Ef') as [Hlv' [Ip [ft [fe [Ech [Dft [Dfe [Lft Lfe]]]]]]]].
  set (lvl := nlevel fnode') in *.
  destruct (cget c code_restrict [RN fid'; RN vid']) as [r|] eqn:Ecache.
  { destruct (proj1 (proj2 (proj2 Q _ _ _ Ecache)) (RN fid') (RN vid') eq_refl eq_refl)
      as [phi0 [M0 [D0 [V0 Dr]]]].
    apply (qresult_ok_here C cget Sg s c _ _ B Q).
    rewrite (lchain_fun s _ _ _ V0 V') in Dr.
    apply (den_ext s r _ _ Dr). apply restr_ext. apply (den_unique s _ phi0 phi' D0 D'). }
  rewrite Ech, (wf_stored s H fid' fnode' Ef'). fold lvl.
  assert (Ov' : ref_ok s (RN vid')) by (exists vnd'; exact Ev').
  refine (qresult_ok_bind C cget Sg s _ _ _ _ (IH s c (eref ft) (RN vid') _ M' B Q Dft Ov' V' ltac:(lia)) _).
  intros s1 c1 t B1 X1 Q1 D1.
  refine (qresult_ok_bind C cget Sg s1 _ _ _ _
            (IH s1 c1 (eref fe) (RN vid') _ M' B1 Q1 (den_extends s s1 _ _ B X1 Dfe) (ext_ref_ok _ _ _ X1 Ov')
                (lchain_extends _ _ _ _ X1 V') (fuel_extends s s1 _ n X1 (proj1 Dfe) ltac:(lia))) _).
  intros s2 c2 e B2 X2 Q2 D2.
  assert (X02 : extends s s2) by (eapply extends_trans; eauto).
  assert (II : forall i, i < 2 -> indep (restr M' (cofn phi' lvl i)) (S lvl)).
  { intros i Hi. apply indep_restr. apply (indep_cofn phi' lvl lvl i Ip (le_n _) Hi). }
  apply (qresult_ok_node C cget cadd Hlossy Sg s2 c2 lvl t e _ _ _ _ _ B2 Q2
           ltac:(rewrite (ext_nlevels _ _ X02); exact Hlv') (den_extends s1 s2 _ _ B1 X2 D1) D2
           (II 0 ltac:(lia)) (II 1 ltac:(lia))).
  - intros c0 Hc. apply restr_shannon; [exact Xp' | | exact Hc].
    pose proof (lchain_asc s B _ _ V') as Asc. rewrite (rlevel_node s vid' vnd' Ev') in Asc.
    apply (asc_notin _ _ _ Asc). exact Hlt.
  - unfold code_restrict. lia.
  - intros s' r X Dr. assert (X' : extends s s') by (eapply extends_trans; eauto).
    apply (qentry_restrict Sg s' (RN fid') (RN vid') r phi' M');
      [apply (den_extends s s' _ _ B X' D') | apply (lchain_extends _ _ _ _ X' V') | exact Dr].
Qed.

End R.
