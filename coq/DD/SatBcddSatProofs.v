(** * The BCDD recursion of [sat_count_edge] in [Saturating<uW>] (DD/SatCount.v, [sat_bcdd_sat])

    Like the BDD version (DD/SatCountProofs.v, Part D): the run returns the
    exact count while [2^vars] is representable, otherwise the out-of-range
    marker, except for the unsatisfiable function, whose count 0 is exact.
    The argument needs that no inner node denotes the constant true function:
    such a node would have two identical children (there is only one
    terminal in a BCDD: hypothesis [terms_kind]). *)

From Coq Require Import List NArith PArith Bool Arith Lia FMapPositive.
From OxiVerif Require Import DD.Table DD.TableExtra DD.TableProofs DD.SatCount DD.SatCountProofs.
Import ListNotations.

Arguments N.add : simpl never.
Arguments N.sub : simpl never.
Arguments N.mul : simpl never.
Arguments N.div : simpl never.
Arguments N.modulo : simpl never.
Arguments N.pow : simpl never.
Arguments N.min : simpl never.

Section SatBcddSat.
Variable s : snap.
Hypothesis H : WF s.
Hypothesis Hkind : s_kind s = KBcdd.
Hypothesis Hterms : terms_kind s.

Let n := nlevels s.
Let T (r : ref) (tag : bool) : N := count_levels n (Fc s r tag).

Lemma Tc_term : forall t tag, T (RT t) tag = if tag then 0%N else (2 ^ N.of_nat n)%N.
Proof.
  intros t tag. unfold T, count_levels.
  rewrite (cnt_ext n 0 (Fc s (RT t) tag) (fun _ => negb tag) (Fc_T s t tag)), cnt_const.
  destruct tag; reflexivity.
Qed.

(** only a terminal edge denotes a constant: the untagged one true, the tagged
    one false (a node with two such children would be redundant) *)
Lemma const_is_term_c : forall (b : bool) k r tag, ref_ok s r -> n - rlevel s r <= k ->
  T r tag = (if b then 2 ^ N.of_nat n else 0)%N -> exists t, r = RT t /\ tag = negb b.
Proof.
  intros b. induction k as [k IH] using lt_wf_ind. intros r tag Hok Hk HT.
  pose proof (pow2_pos (N.of_nat n)) as Hp.
  destruct r as [t|id].
  - rewrite Tc_term in HT. exists t. split; [reflexivity|]. destruct tag, b; try reflexivity; lia.
  - exfalso. destruct Hok as [nd E]. rewrite (rlevel_node s id nd E) in Hk.
    pose proof (wf_level s H id nd E) as Hlv. fold n in Hlv.
    destruct (two_children s id nd H (bcdd_binary s Hkind) E) as [e0 [e1 Hc]].
    destruct (node_children_ok s id nd e0 e1 H E Hc) as [[O0 L0] [O1 L1]].
    pose proof (total_node_c s id tag nd e0 e1 H E Hc) as Ht. fold n in Ht.
    fold (T (eref e0) (xorb tag (etag e0))) in Ht. fold (T (eref e1) (xorb tag (etag e1))) in Ht.
    fold (T (RN id) tag) in Ht.
    assert (B0 : (T (eref e0) (xorb tag (etag e0)) <= 2 ^ N.of_nat n)%N) by apply cnt_le.
    assert (B1 : (T (eref e1) (xorb tag (etag e1)) <= 2 ^ N.of_nat n)%N) by apply cnt_le.
    destruct (IH (n - rlevel s (eref e0)) ltac:(lia) (eref e0) (xorb tag (etag e0)) O0 (le_n _)
                ltac:(destruct b; lia)) as [t0 [R0 X0]].
    destruct (IH (n - rlevel s (eref e1)) ltac:(lia) (eref e1) (xorb tag (etag e1)) O1 (le_n _)
                ltac:(destruct b; lia)) as [t1 [R1 X1]].
    (* both children are the same edge *)
    assert (Et : t0 = t1).
    { rewrite R0 in O0. rewrite R1 in O1. destruct O0 as [v0 V0]. destruct O1 as [v1 V1].
      apply (bcdd_one_term s t0 t1 v0 v1 Hkind Hterms V0 V1). }
    assert (Ee : e0 = e1).
    { apply edge_ext; [congruence|]. destruct b, tag, (etag e0), (etag e1); simpl in *; congruence. }
    pose proof (wf_reduced s H id nd E) as Hr. unfold reduced in Hr. rewrite Hkind in Hr.
    destruct Hr as [Hr _]. apply Hr. rewrite Hc. subst e1.
    intros x y [<-|[<-|[]]] [<-|[<-|[]]]; reflexivity.
Qed.

Lemma node_not_const_c : forall id tag nd, find_node s id = Some nd ->
  (T (RN id) tag <> 0 /\ T (RN id) tag + 1 <= 2 ^ N.of_nat n)%N.
Proof.
  intros id tag nd E.
  assert (B : (T (RN id) tag <= 2 ^ N.of_nat n)%N) by apply cnt_le.
  assert (Hn : forall b : bool, T (RN id) tag <> (if b then 2 ^ N.of_nat n else 0)%N).
  { intros b Heq. destruct (const_is_term_c b _ (RN id) tag ltac:(exists nd; exact E) (le_n _) Heq) as [t [R _]].
    discriminate. }
  pose proof (Hn true) as H1. pose proof (Hn false) as H0. cbv iota in H1, H0. lia.
Qed.

End SatBcddSat.

(** The BCDD recursion run in [Saturating<uW>] returns the exact count as long
    as [2^vars] is representable; otherwise the out-of-range marker, except for
    the unsatisfiable function (count 0). *)
Theorem sat_bcdd_saturating : forall w, (2 <= w)%N -> forall s vars e,
  WF s -> s_kind s = KBcdd -> terms_kind s -> nlevels s <= vars -> ref_ok s (eref e) ->
  sat_bcdd_sat w s (S (nlevels s)) vars e =
  option_map (saturate w vars) (sat_bcdd s (S (nlevels s)) vars e).
Proof.
  intros w Hw s vars e H Hk Ht Hv Hok.
  pose proof (sat_bcdd_correct s vars e H Hk Hv Hok) as Hex. rewrite Hex.
  pose proof (fun Hc => walk_sim_bcdd exact_ops (sat_ops w) (fun a x => x = saturate w vars a) s
                (eq_sym (saturate_0 w vars)) _ _ (shl_one w Hw vars) Hc _ _ _ _ Hex) as Hs.
  destruct Hs as [x [Wx ->]]; [|exact Wx].
  intros f id nd e0 e1 tag a0 a1 b0 b1 E Hc W0 W1 -> ->.
  exact (halving_saturate w Hw s vars _ _ H (bcdd_binary s Hk) Hv (bcdd_halving s H vars)
           (fun id tag nd E => proj2 (node_not_const_c s H Hk Ht id tag nd E)) f id tag nd e0 e1 a0 a1 E Hc W0 W1).
Qed.

Corollary sat_bcdd_saturating_exact : forall w, (2 <= w)%N -> forall s vars e,
  WF s -> s_kind s = KBcdd -> terms_kind s -> nlevels s <= vars -> (N.of_nat vars < w)%N ->
  ref_ok s (eref e) ->
  sat_bcdd_sat w s (S (nlevels s)) vars e =
  Some (2 ^ N.of_nat (vars - nlevels s) * count_levels (nlevels s) (fun_bcdd s e))%N.
Proof.
  intros w Hw s vars e H Hk Ht Hv Hlt Hok. rewrite (sat_bcdd_saturating w Hw s vars e H Hk Ht Hv Hok).
  rewrite (sat_bcdd_correct s vars e H Hk Hv Hok). simpl. unfold saturate.
  destruct (N.ltb_spec (N.of_nat vars) w); [reflexivity | lia].
Qed.

Example ex_sat_bcdd_u64 :
  wf_full_b ex_sat_bcdd = true /\
  sat_bcdd_sat 64 ex_sat_bcdd 4 63 (mkEdge (RN 4) false) = Some (5 * 2 ^ 60)%N /\
  sat_bcdd_sat 64 ex_sat_bcdd 4 63 (mkEdge (RN 4) true) = Some (3 * 2 ^ 60)%N /\
  sat_bcdd_sat 64 ex_sat_bcdd 4 64 (mkEdge (RN 4) true) = Some (sat_max 64) /\
  sat_bcdd_sat 64 ex_sat_bcdd 4 64 (mkEdge (RT 0) true) = Some 0%N.
Proof. vm_compute. repeat split; reflexivity. Qed.
