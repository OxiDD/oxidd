(** * Proofs about kept [SatCountCache] objects (model: DD/SatCache.v)

    The theorem: over any history of manager events (growth, collections,
    reorderings; node ids freed by a collection or reordering and re-used for
    other functions later) every [sat_count] served through any of the
    caller's cache objects returns what the same call returns on a fresh cache
    without caching ([sat_ref]) -- for every number type; in exact arithmetic
    that is the number of satisfying assignments.  The epoch discipline
    ([hist_ok] of DD/SatQueryProofs.v, there a hypothesis) is derived here from
    the step relation of the manager: [gc_count] never decreases, every event
    that can free a node id increments it, so a cache whose tag carries the
    current [gc_count] was filled on a table that the current table extends.

    The tag rule is necessary: without the [gc_count] comparison, without the
    [vars] comparison, or with a manager whose [reorder] does not increment
    [gc_count], concrete histories return wrong counts ([*_refuted]). *)
From Coq Require Import List NArith PArith Bool Arith Lia FMapPositive.
From OxiVerif Require Import DD.Table DD.TableExtra DD.TableProofs DD.SatCount DD.SatCountProofs DD.SatQueryProofs.
From OxiVerif Require Import Num.Natural DD.Pick DD.SatCache.
Import ListNotations.

(** * Part 1: [same_table_b] decides [same_table] *)

Lemma kind_eqb_iff : forall a b, kind_eqb a b = true <-> a = b.
Proof. intros a b. destruct a, b; simpl; split; intros E; try reflexivity; try discriminate. Qed.

Lemma opt_N_eqb_iff : forall a b, opt_N_eqb a b = true <-> a = b.
Proof.
  intros [x|] [y|]; simpl; split; intros E; try reflexivity; try discriminate.
  - apply N.eqb_eq in E. congruence.
  - inversion E. apply N.eqb_refl.
Qed.

Theorem same_table_b_spec : forall s s', same_table_b s s' = true <-> same_table s s'.
Proof.
  intros s s'. unfold same_table_b. rewrite !andb_true_iff, kind_eqb_iff, !forallb_forall. split.
  - intros [[Hk Ht] Hn]. constructor.
    + exact Hk.
    + intros t. destruct (term_val s t) as [v|] eqn:E.
      * apply opt_N_eqb_iff. rewrite <- E. apply (Ht (t, v)). apply in_or_app. left.
        apply assoc_N_In. exact E.
      * destruct (term_val s' t) as [v'|] eqn:E'; [|reflexivity].
        assert (X : opt_N_eqb (term_val s' t) (term_val s t) = true).
        { apply (Ht (t, v')). apply in_or_app. right. apply assoc_N_In. exact E'. }
        apply opt_N_eqb_iff in X. congruence.
    + intros id nd E. specialize (Hn (id, nd) (proj1 (find_node_elements s id nd) E)). simpl in Hn.
      destruct (find_node s' id) as [nd'|]; [|discriminate].
      exists nd'. split; [reflexivity|]. apply edges_eqb_eq. exact Hn.
  - intros X. split; [split|].
    + apply (st_kind s s' X).
    + intros [t v] _. simpl. apply opt_N_eqb_iff. apply (st_terms s s' X).
    + intros [id nd] Hin. simpl.
      assert (E : find_node s id = Some nd) by (apply find_node_elements; exact Hin).
      destruct (st_nodes s s' X id nd E) as [nd' [E' Hc]]. rewrite E'. apply edges_eqb_eq. exact Hc.
Qed.

Lemma same_table_trans : forall s1 s2 s3, same_table s1 s2 -> same_table s2 s3 -> same_table s1 s3.
Proof.
  intros s1 s2 s3 X Y. constructor.
  - rewrite (st_kind s2 s3 Y). apply (st_kind s1 s2 X).
  - intros t. rewrite (st_terms s2 s3 Y). apply (st_terms s1 s2 X).
  - intros id nd E. destruct (st_nodes s1 s2 X id nd E) as [nd2 [E2 C2]].
    destruct (st_nodes s2 s3 Y id nd2 E2) as [nd3 [E3 C3]]. exists nd3. split; [exact E3 | congruence].
Qed.

(** * Part 2: histories *)

(** the manager holds a well-formed binary diagram *)
Definition mgr_ok (m : mgr) : Prop := WF (m_snap m) /\ binary (s_kind (m_snap m)).

(** what an event may do.  [EGrow]: no node disappears, no child list changes
    (reference counts, levels, handles, the number of levels may change);
    [EGc] / [EReorder]: any well-formed table of the same kind;
    [ECount]: the edge is one of the current table *)
Definition step_ok (m : mgr) (ev : event) : Prop :=
  match ev with
  | EGrow s' => WF s' /\ same_table (m_snap m) s'
  | EGc s' => WF s' /\ s_kind s' = s_kind (m_snap m)
  | EReorder s' => WF s' /\ s_kind s' = s_kind (m_snap m)
  | ECount _ _ e => ref_ok (m_snap m) (eref e)
  end.

Fixpoint hist_valid (m : mgr) (evs : list event) : Prop :=
  match evs with
  | [] => True
  | ev :: rest => step_ok m ev /\ hist_valid (mgr_step m ev) rest
  end.

Definition final_mgr (m : mgr) (evs : list event) : mgr := fold_left mgr_step evs m.

Lemma mgr_ok_step : forall m ev, mgr_ok m -> step_ok m ev -> mgr_ok (mgr_step m ev).
Proof.
  intros m ev [H Hb] Hs. destruct ev as [s'|s'|s'|cid vars e]; simpl in *.
  - destruct Hs as [H' X]. split; [exact H'|]. simpl. rewrite (st_kind _ _ X). exact Hb.
  - destruct Hs as [H' K]. split; [exact H'|]. simpl. rewrite K. exact Hb.
  - destruct Hs as [H' K]. split; [exact H'|]. simpl. rewrite K. exact Hb.
  - split; assumption.
Qed.

(** the counters: [gc_count] and [reorder_count] never decrease, a reordering
    shows in [gc_count] as well *)
Lemma step_counters : forall m ev,
  (m_gc m <= m_gc (mgr_step m ev) /\ m_reorder m <= m_reorder (mgr_step m ev) /\
   m_reorder (mgr_step m ev) - m_reorder m <= m_gc (mgr_step m ev) - m_gc m)%N.
Proof. intros m ev. destruct ev; simpl; lia. Qed.

Lemma hist_counters : forall evs m,
  (m_gc m <= m_gc (final_mgr m evs) /\ m_reorder m <= m_reorder (final_mgr m evs) /\
   m_reorder (final_mgr m evs) - m_reorder m <= m_gc (final_mgr m evs) - m_gc m)%N.
Proof.
  unfold final_mgr. induction evs as [|ev rest IH]; intros m; simpl; [lia|].
  specialize (IH (mgr_step m ev)). pose proof (step_counters m ev). lia.
Qed.

(** an unchanged [gc_count] means that no node id was freed: the table was
    only extended *)
Lemma hist_same_gc : forall evs m, WF (m_snap m) -> hist_valid m evs ->
  m_gc (final_mgr m evs) = m_gc m -> same_table (m_snap m) (m_snap (final_mgr m evs)).
Proof.
  induction evs as [|ev rest IH]; intros m H Hv Hg; simpl in *; [apply same_table_refl|].
  destruct Hv as [Hs Hr].
  pose proof (hist_counters rest (mgr_step m ev)) as [Hc _]. unfold final_mgr in *.
  destruct ev as [s'|s'|s'|cid vars e]; simpl in *.
  - destruct Hs as [H' X]. eapply same_table_trans; [exact X|]. apply (IH (mkMgr s' (m_gc m) (m_reorder m))); assumption.
  - lia.
  - lia.
  - apply (IH m); assumption.
Qed.

(** what the driver checks on consecutive observations of the real manager *)
Theorem obs_ok_of_history : forall evs m, WF (m_snap m) -> hist_valid m evs ->
  obs_ok_b m (final_mgr m evs) = true.
Proof.
  intros evs m H Hv. unfold obs_ok_b. pose proof (hist_counters evs m) as [H1 [H2 H3]].
  rewrite !andb_true_iff, !N.leb_le, orb_true_iff, negb_true_iff. repeat split; try assumption.
  destruct (N.eqb_spec (m_gc m) (m_gc (final_mgr m evs))) as [E|E]; [right | left; reflexivity].
  apply same_table_b_spec. apply hist_same_gc; [assumption | assumption | congruence].
Qed.

Section Hist.
Context {A : Type}.
Variable o : numops A.
Variable alls : positive -> bool.

Lemma sat_query_with_std : forall c epoch s vars e,
  sat_query_with o (@clear_if_invalid A) c epoch s vars e = sat_query o c epoch s vars e.
Proof. reflexivity. Qed.

(** the invariant of one cache object: its epoch tag is not ahead of the
    manager, and if it is the current [gc_count] then the content is exact for
    the current table *)
Definition cinv (m : mgr) (c : @scache A) : Prop :=
  (c_epoch c <= m_gc m)%N /\ (c_epoch c = m_gc m -> cache_valid o c (m_snap m)).

Definition caches_inv (m : mgr) (cs : @caches A) : Prop :=
  forall cid c, PositiveMap.find cid cs = Some c -> cinv m c.

Lemma cinv_new : forall m all, cinv m (cache_new all).
Proof.
  intros m all. split; [simpl; lia|]. intros _. unfold cache_valid, cache_new. simpl. apply cache_ok_empty.
Qed.

Lemma cinv_get : forall m cs cid, caches_inv m cs -> cinv m (get_cache alls cs cid).
Proof.
  intros m cs cid Hc. unfold get_cache. destruct (PositiveMap.find cid cs) as [c|] eqn:E; [apply (Hc cid c E) | apply cinv_new].
Qed.

Lemma caches_inv_empty : forall m, caches_inv m (PositiveMap.empty _).
Proof. intros m cid c E. rewrite PositiveMap.gempty in E. discriminate. Qed.

(** the dangerous events: a collection or a reordering makes every tag stale *)
Lemma cinv_step : forall m ev c, mgr_ok m -> step_ok m ev -> cinv m c -> cinv (mgr_step m ev) c.
Proof.
  intros m ev c [H Hb] Hs [Hle Hv]. destruct ev as [s'|s'|s'|cid vars e]; simpl in *.
  - destruct Hs as [H' X]. split; [exact Hle|]. simpl. intros E.
    apply (cache_valid_extend o c (m_snap m) s' H H' X). apply Hv. exact E.
  - split; simpl; [lia|]. intros E. lia.
  - split; simpl; [lia|]. intros E. lia.
  - split; assumption.
Qed.

(** one call through a cache object of the table *)
Lemma count_event_sound : forall m cs cid vars e, mgr_ok m -> caches_inv m cs -> ref_ok (m_snap m) (eref e) ->
  exists v cs', count_event o alls m cs cid vars e = Some (v, cs') /\
    sat_ref o (m_snap m) vars e = Some v /\ caches_inv m cs'.
Proof.
  intros m cs cid vars e [H Hb] Hc Hok.
  destruct (sat_ref_total o (m_snap m) vars e H Hb Hok) as [v Ev].
  destruct (cinv_get m cs cid Hc) as [Hle Hv].
  destruct (sat_query_sound o (get_cache alls cs cid) (m_gc m) (m_snap m) vars e v H Hb Hok
              (fun E _ => Hv E) Ev) as [c' [Eq [Ee [_ [_ Hv']]]]].
  exists v, (PositiveMap.add cid c' cs). unfold count_event, count_event_with.
  rewrite sat_query_with_std, Eq. split; [reflexivity|]. split; [exact Ev|].
  intros cid' c0 E. destruct (Pos.eq_dec cid' cid) as [->|Hne].
  - rewrite PositiveMap.gss in E. inversion E; subst c0. split; [lia | intros _; exact Hv'].
  - rewrite PositiveMap.gso in E by exact Hne. apply (Hc cid' c0 E).
Qed.

Lemma run_events_from : forall evs m cs, mgr_ok m -> caches_inv m cs -> hist_valid m evs ->
  exists vs cs', run_events o alls m cs evs = Some (vs, final_mgr m evs, cs') /\
    map Some vs = ref_events o true m evs /\ caches_inv (final_mgr m evs) cs'.
Proof.
  induction evs as [|ev rest IH]; intros m cs Hm Hc Hv.
  - exists [], cs. split; [reflexivity|]. split; [reflexivity | exact Hc].
  - destruct Hv as [Hs Hr]. pose proof (mgr_ok_step m ev Hm Hs) as Hm'.
    destruct ev as [s'|s'|s'|cid vars e].
    1-3: exact (IH _ cs Hm' (fun cid c E => cinv_step m _ c Hm Hs (Hc cid c E)) Hr).
    simpl in Hs.
    destruct (count_event_sound m cs cid vars e Hm Hc Hs) as [v [cs1 [Ec [Ev Hc1]]]].
    destruct (IH m cs1 Hm Hc1 Hr) as [vs [cs' [Er [Ef Hi]]]].
    exists (v :: vs), cs'. unfold run_events, count_event in *. simpl. rewrite Ec, Er.
    split; [reflexivity|]. split; [|exact Hi]. simpl. rewrite Ev, Ef. reflexivity.
Qed.

(** Kept caches are transparent: whatever happens to the manager between the
    calls and however the calls are distributed over the caller's cache
    objects, every call returns the value of the uncached computation on the
    table of the moment. *)
Theorem cache_history_correct : forall evs m, mgr_ok m -> hist_valid m evs ->
  exists vs cs', run_events o alls m (PositiveMap.empty _) evs = Some (vs, final_mgr m evs, cs') /\
    map Some vs = ref_events o true m evs.
Proof.
  intros evs m Hm Hv. destruct (run_events_from evs m _ Hm (caches_inv_empty m) Hv) as [vs [cs' [Er [Ef _]]]].
  exists vs, cs'. split; assumption.
Qed.

Corollary cache_history_values : forall evs m l, mgr_ok m -> hist_valid m evs ->
  ref_events o true m evs = map Some l ->
  exists cs', run_events o alls m (PositiveMap.empty _) evs = Some (l, final_mgr m evs, cs').
Proof.
  intros evs m l Hm Hv El. destruct (cache_history_correct evs m Hm Hv) as [vs [cs' [Er Ef]]].
  exists cs'. rewrite Er. rewrite El in Ef. repeat f_equal. clear - Ef. revert l Ef.
  induction vs as [|v vs IH]; intros [|x l] E; try discriminate; [reflexivity|].
  injection E as -> E. f_equal. apply IH. exact E.
Qed.

(** a collection or reordering between two uses of a cache object empties it:
    no entry that was stored before the event is ever read afterwards, in
    particular not the entry of a node id that was freed and re-used *)
Theorem stale_entries_never_read : forall m ev c vars e,
  (exists s', ev = EGc s' \/ ev = EReorder s') -> (c_epoch c <= m_gc m)%N ->
  sat_query o c (m_gc (mgr_step m ev)) (m_snap (mgr_step m ev)) vars e =
  sat_query o (mkCache (m_gc (mgr_step m ev)) vars (PositiveMap.empty A) (c_all c))
            (m_gc (mgr_step m ev)) (m_snap (mgr_step m ev)) vars e.
Proof.
  intros m ev c vars e [s' [->| ->]] Hle; apply sat_query_clears; left; simpl; lia.
Qed.

(** ** [pick_cube_uniform]: the counts the closure obtains through the cache *)
Theorem uni_counts_sound : forall view m c e l t x, mgr_ok m -> cinv m c ->
  view (m_snap m) e = CNode l t x -> ref_ok (m_snap m) (eref t) -> ref_ok (m_snap m) (eref x) ->
  exists ct ce c', uni_counts o view c (m_gc m) (m_snap m) e = Some (ct, ce, c') /\
    sat_ref o (m_snap m) (nlevels (m_snap m)) t = Some ct /\
    sat_ref o (m_snap m) (nlevels (m_snap m)) x = Some ce /\ cinv m c'.
Proof.
  intros view m c e l t x [H Hb] [Hle Hv] Ev Ot Ox. unfold uni_counts. rewrite Ev.
  destruct (sat_ref_total o (m_snap m) (nlevels (m_snap m)) t H Hb Ot) as [ct Et].
  destruct (sat_ref_total o (m_snap m) (nlevels (m_snap m)) x H Hb Ox) as [ce Ee].
  destruct (sat_query_sound o c (m_gc m) (m_snap m) _ t ct H Hb Ot (fun E _ => Hv E) Et)
    as [c1 [Q1 [E1 [_ [_ V1]]]]].
  destruct (sat_query_sound o c1 (m_gc m) (m_snap m) _ x ce H Hb Ox (fun _ _ => V1) Ee)
    as [c2 [Q2 [E2 [_ [_ V2]]]]].
  exists ct, ce, c2. rewrite Q1, Q2. repeat split; try assumption; try reflexivity.
  - lia.
  - intros _. exact V2.
Qed.

End Hist.

(** * Part 3: exact arithmetic *)

Arguments N.mul : simpl never.
Arguments N.pow : simpl never.
Arguments N.div : simpl never.

(** every counting call of the history asks for at least as many variables as
    there are levels, on a BDD / BCDD / ZBDD *)
Fixpoint counting_hist (m : mgr) (evs : list event) : Prop :=
  match evs with
  | [] => True
  | ECount _ vars e :: rest =>
    counting_kind (s_kind (m_snap m)) /\ nlevels (m_snap m) <= vars /\ counting_hist m rest
  | ev :: rest => counting_hist (mgr_step m ev) rest
  end.

(** the numbers of satisfying assignments the calls must return *)
Fixpoint exact_events (m : mgr) (evs : list event) : list N :=
  match evs with
  | [] => []
  | ECount _ vars e :: rest => exact_count (m_snap m) vars e :: exact_events m rest
  | ev :: rest => exact_events (mgr_step m ev) rest
  end.

Lemma ref_events_exact : forall evs m, mgr_ok m -> hist_valid m evs -> counting_hist m evs ->
  ref_events exact_ops true m evs = map Some (exact_events m evs).
Proof.
  induction evs as [|ev rest IH]; intros m Hm Hv Hc; [reflexivity|].
  destruct Hv as [Hs Hr]. pose proof (mgr_ok_step m ev Hm Hs) as Hm'.
  destruct ev as [s'|s'|s'|cid vars e]; simpl in *; try (apply IH; assumption).
  destruct Hc as [Hk [Hl Hc]]. destruct Hm as [H Hb].
  rewrite (sat_ref_exact (m_snap m) vars e H Hk Hl Hs). f_equal. apply IH; [split|..]; assumption.
Qed.

(** Model counting through kept caches is exact. *)
Theorem cache_history_exact : forall alls evs m, mgr_ok m -> hist_valid m evs -> counting_hist m evs ->
  exists cs', run_events exact_ops alls m (PositiveMap.empty _) evs =
              Some (exact_events m evs, final_mgr m evs, cs').
Proof.
  intros alls evs m Hm Hv Hc.
  apply (cache_history_values exact_ops alls evs m _ Hm Hv (ref_events_exact evs m Hm Hv Hc)).
Qed.

(** the counts of DD/Pick.v ([count_bdd] / [count_bcdd] / [count_zbdd]: the branch weights in the theorems
    C13_*_uniform_prob) are the values of a call with [vars = num_levels] in exact arithmetic *)
Lemma sat_ref_pick_count : forall s e v, sat_ref exact_ops s (nlevels s) e = Some v ->
  match s_kind s with
  | KBdd => count_bdd s e = v
  | KBcdd => count_bcdd s e = v
  | KZbdd => count_zbdd s e = v
  | _ => True
  end.
Proof.
  intros s e v. unfold sat_ref. destruct (s_kind s) eqn:Hk; try exact (fun _ => I); rewrite ?terminal_val_exact.
  - unfold count_bdd, sat_bdd. destruct (SatCount.walk _ s _ (eref e) false) as [x|]; simpl; [|discriminate].
    intros E. inversion E. reflexivity.
  - unfold count_bcdd, sat_bcdd. destruct (SatCount.walk _ s _ (eref e) (etag e)) as [x|]; simpl; [|discriminate].
    intros E. inversion E. unfold rescale, scaled_bcdd. simpl. change (2 ^ 0)%N with 1%N. lia.
  - unfold count_zbdd, sat_zbdd, paths_zbdd. destruct (SatCount.walk _ s _ (eref e) false) as [x|]; simpl; [|discriminate].
    intros E. inversion E. reflexivity.
Qed.

(** non-vacuity of [uni_counts_sound]: at the root of (x0 /\ x1) \/ x2 the closure obtains 6 = #(x1 \/ x2) and
    4 = #x2 over three variables and leaves them in the cache *)
Example ex_uni_counts :
  cinv exact_ops ex_mgr0 (cache_new true) /\
  view_plain ex_sat_bdd (xe (RN 4)) = CNode 0 (xe (RN 3)) (xe (RN 2)) /\
  match uni_counts exact_ops view_plain (cache_new true) 0%N ex_sat_bdd (xe (RN 4)) with
  | Some (ct, ce, c) => ct = 6%N /\ ce = 4%N /\ count_bdd ex_sat_bdd (xe (RN 3)) = 6%N /\
                        PositiveMap.find 2%positive (c_map c) = Some 4%N
  | None => False
  end.
Proof. split; [apply cinv_new|]. vm_compute. repeat split; reflexivity. Qed.

(** * Part 4: the tag rule is necessary *)

Lemma ex_mgr0_ok : mgr_ok ex_mgr0.
Proof. split; [apply wf_b_spec; vm_compute; reflexivity | simpl; discriminate]. Qed.

Ltac wf_vm := apply wf_b_spec; vm_compute; reflexivity.
Ltac ok_vm := simpl; eexists; reflexivity.

Lemma ex_reuse_valid : hist_valid ex_mgr0 ex_reuse_events.
Proof.
  unfold ex_reuse_events, hist_valid, step_ok.
  split; [ok_vm|]. split; [split; [wf_vm | reflexivity]|].
  split; [split; [wf_vm | apply same_table_b_spec; vm_compute; reflexivity]|].
  split; [ok_vm | exact I].
Qed.

Lemma ex_reuse_reorder_valid : hist_valid ex_mgr0 ex_reuse_events_reorder.
Proof.
  unfold ex_reuse_events_reorder, hist_valid, step_ok.
  split; [ok_vm|]. split; [split; [wf_vm | reflexivity]|]. split; [ok_vm | exact I].
Qed.

Lemma ex_vars_valid : hist_valid ex_mgr0 ex_vars_events.
Proof. unfold ex_vars_events, hist_valid, step_ok. split; [ok_vm|]. split; [ok_vm | exact I]. Qed.

(** the hypotheses of the history theorems hold for the example, and the code's
    rule returns the exact counts: 5 for (x0 /\ x1) \/ x2, then 2 for x1 /\ x2
    although its root re-uses the node id 2 under which the cache held 4 *)
Example ex_reuse_exact :
  mgr_ok ex_mgr0 /\ hist_valid ex_mgr0 ex_reuse_events /\ counting_hist ex_mgr0 ex_reuse_events /\
  exact_events ex_mgr0 ex_reuse_events = [5; 2]%N /\
  match run_events exact_ops (fun _ => true) ex_mgr0 (PositiveMap.empty _) ex_reuse_events with
  | Some (vs, m', _) => vs = [5; 2]%N /\ m_gc m' = 1%N
  | None => False
  end.
Proof.
  split; [exact ex_mgr0_ok|]. split; [exact ex_reuse_valid|]. split.
  - simpl. repeat split; try (left; reflexivity); vm_compute; lia.
  - split; vm_compute; [reflexivity | split; reflexivity].
Qed.

(** [clear_if_invalid] without the [gc_count] comparison: the second call reads
    the entry of the freed and re-used node id 2 and returns 4 instead of 2 *)
Theorem rule_without_gc_count_refuted :
  exists m evs, mgr_ok m /\ hist_valid m evs /\ counting_hist m evs /\
    exists vs m' cs', run_events_with exact_ops (@clear_vars_only N) true (fun _ => true) m (PositiveMap.empty _) evs
                      = Some (vs, m', cs') /\ vs <> exact_events m evs.
Proof.
  exists ex_mgr0, ex_reuse_events. destruct ex_reuse_exact as [H1 [H2 [H3 _]]].
  split; [exact H1|]. split; [exact H2|]. split; [exact H3|].
  eexists. eexists. eexists. split; [vm_compute; reflexivity|]. vm_compute. discriminate.
Qed.

(** the same with a manager whose [reorder] does not increment [gc_count]
    (the code's rule, which does not look at [reorder_count]) *)
Theorem reorder_without_gc_bump_refuted :
  exists m evs, mgr_ok m /\ hist_valid m evs /\ counting_hist m evs /\
    exists vs m' cs', run_events_with exact_ops (@clear_if_invalid N) false (fun _ => true) m (PositiveMap.empty _) evs
                      = Some (vs, m', cs') /\ vs <> exact_events m evs.
Proof.
  exists ex_mgr0, ex_reuse_events_reorder.
  split; [exact ex_mgr0_ok|]. split; [exact ex_reuse_reorder_valid|]. split.
  - simpl. repeat split; try (left; reflexivity); vm_compute; lia.
  - eexists. eexists. eexists. split; [vm_compute; reflexivity|]. vm_compute. discriminate.
Qed.

(** without the [vars] comparison: [sat_count(4)] after [sat_count(3)] returns
    the root's entry for three variables, 5 instead of 10 *)
Theorem rule_without_vars_refuted :
  exists m evs, mgr_ok m /\ hist_valid m evs /\ counting_hist m evs /\
    exists vs m' cs', run_events_with exact_ops (@clear_epoch_only N) true (fun _ => true) m (PositiveMap.empty _) evs
                      = Some (vs, m', cs') /\ vs <> exact_events m evs.
Proof.
  exists ex_mgr0, ex_vars_events.
  split; [exact ex_mgr0_ok|]. split; [exact ex_vars_valid|]. split.
  - simpl. repeat split; try (left; reflexivity); vm_compute; lia.
  - eexists. eexists. eexists. split; [vm_compute; reflexivity|]. vm_compute. discriminate.
Qed.
