(** * Proofs about model counting (DD/SatCount.v)

    Part A (any number type, any of the three recursion schemes):
    unfolding, fuel adequacy, totality, invariance under table extension,
    soundness of the cache ([walkc_sound]); a simulation between two runs
    over different number types ([walk_sim]).
    Part B: counting lemmas for [cnt] / [count_levels].
    Part C: [sat_bdd_correct], [sat_bcdd_correct] (from one development of the
    halving recursion, [halving]: [walk_small] for every [vars], [halving_main]
    for [vars >= levels]), [sat_zbdd_correct] (exact arithmetic), divisibility /
    exactness of every halving.
    Part D: saturating arithmetic.
    ([sat_query] / [run_queries] with epochs: DD/SatQueryProofs.v.) *)

From Coq Require Import List NArith PArith Bool Arith Lia FMapPositive.
From OxiVerif Require Import DD.Table DD.TableExtra DD.TableProofs DD.SatCount.
Import ListNotations.

Arguments N.add : simpl never.
Arguments N.sub : simpl never.
Arguments N.mul : simpl never.
Arguments N.div : simpl never.
Arguments N.modulo : simpl never.
Arguments N.pow : simpl never.
Arguments N.min : simpl never.

(** * Part A: the generic recursion *)

(** binary kinds *)
Definition binary (k : kind) : Prop := k <> KTdd.

Lemma two_children : forall s id nd, WF s -> binary (s_kind s) -> find_node s id = Some nd ->
  exists e0 e1, nchildren nd = [e0; e1].
Proof.
  intros s id nd H Hb E. pose proof (wf_arity s H id nd E) as Ha.
  assert (Ha2 : arity (s_kind s) = 2) by (unfold binary in Hb; destruct (s_kind s); simpl; congruence).
  rewrite Ha2 in Ha. destruct (nchildren nd) as [|a [|b [|c r]]]; simpl in Ha; try discriminate.
  eauto.
Qed.

Lemma node_children_ok : forall s id nd e0 e1, WF s -> find_node s id = Some nd -> nchildren nd = [e0; e1] ->
  (ref_ok s (eref e0) /\ nlevel nd < rlevel s (eref e0)) /\
  (ref_ok s (eref e1) /\ nlevel nd < rlevel s (eref e1)).
Proof.
  intros s id nd e0 e1 H E Hc. split; apply (wf_child s H id nd _ E); rewrite Hc; simpl; auto.
Qed.

(** the part of a snapshot the counting recursion looks at is preserved *)
Record same_table (s s' : snap) : Prop := mkSameTable {
  st_kind : s_kind s' = s_kind s;
  st_terms : forall t, term_val s' t = term_val s t;
  st_nodes : forall id nd, find_node s id = Some nd ->
      exists nd', find_node s' id = Some nd' /\ nchildren nd' = nchildren nd
}.

Lemma same_table_refl : forall s, same_table s s.
Proof. intros s. constructor; eauto. Qed.

Section WalkGen.
Context {A : Type}.
Variable sch : scheme A.

Lemma walk_T : forall s f t tag, walk sch s f (RT t) tag = sc_term sch s t tag.
Proof. destruct f; reflexivity. Qed.

Lemma walk_S : forall s f id tag,
  walk sch s (S f) (RN id) tag =
  match find_node s id with
  | None => None
  | Some nd =>
    match nchildren nd with
    | e0 :: e1 :: nil =>
      match walk sch s f (eref e0) (sc_tag sch tag (etag e0)),
            walk sch s f (eref e1) (sc_tag sch tag (etag e1)) with
      | Some a, Some b => Some (sc_comb sch a b)
      | _, _ => None
      end
    | _ => None
    end
  end.
Proof. reflexivity. Qed.

Lemma walk_node : forall s f id tag nd e0 e1,
  find_node s id = Some nd -> nchildren nd = [e0; e1] ->
  walk sch s (S f) (RN id) tag =
  match walk sch s f (eref e0) (sc_tag sch tag (etag e0)),
        walk sch s f (eref e1) (sc_tag sch tag (etag e1)) with
  | Some a, Some b => Some (sc_comb sch a b)
  | _, _ => None
  end.
Proof. intros s f id tag nd e0 e1 E Hc. rewrite walk_S, E, Hc. reflexivity. Qed.

Arguments walk : simpl never.

(** more fuel does not change a result *)
Lemma walk_mono : forall s f f' r tag v, walk sch s f r tag = Some v -> f <= f' ->
  walk sch s f' r tag = Some v.
Proof.
  intros s. induction f as [|f IH]; intros f' r tag v Hw Hle.
  - destruct r as [t|id]; [rewrite walk_T in *; exact Hw | discriminate].
  - destruct r as [t|id]; [rewrite walk_T in *; exact Hw|].
    destruct f' as [|f']; [lia|]. rewrite walk_S in *.
    destruct (find_node s id) as [nd|]; [|discriminate].
    destruct (nchildren nd) as [|e0 [|e1 [|e2 r]]]; try discriminate.
    destruct (walk sch s f (eref e0) _) as [a|] eqn:Ea; [|discriminate].
    destruct (walk sch s f (eref e1) _) as [b|] eqn:Eb; [|discriminate].
    rewrite (IH f' _ _ a Ea), (IH f' _ _ b Eb) by lia. exact Hw.
Qed.

Section OnSnap.
Variable s : snap.
Hypothesis H : WF s.

Lemma walk_fuel : forall f1 f2 r tag, ref_ok s r ->
  nlevels s - rlevel s r < f1 -> nlevels s - rlevel s r < f2 ->
  walk sch s f1 r tag = walk sch s f2 r tag.
Proof.
  induction f1 as [|f1 IH]; intros f2 r tag Hok H1 H2; [lia|].
  destruct r as [t|id]; [rewrite !walk_T; reflexivity|].
  destruct f2 as [|f2]; [lia|]. rewrite !walk_S.
  destruct (find_node s id) as [nd|] eqn:E; [|reflexivity].
  rewrite (rlevel_node s id nd E) in H1, H2.
  destruct (nchildren nd) as [|e0 [|e1 [|e2 r]]] eqn:Hc; try reflexivity.
  destruct (node_children_ok s id nd e0 e1 H E Hc) as [[O0 L0] [O1 L1]].
  pose proof (rlevel_le s H (eref e0)). pose proof (rlevel_le s H (eref e1)).
  rewrite (IH f2 (eref e0)), (IH f2 (eref e1)) by (auto; lia). reflexivity.
Qed.

(** any fuel that produced a value agrees with the standard fuel *)
Lemma walk_std : forall f r tag v, ref_ok s r -> walk sch s f r tag = Some v ->
  walk sch s (S (nlevels s)) r tag = Some v.
Proof.
  intros f r tag v Hok Hw.
  pose proof (walk_mono s f (Nat.max f (S (nlevels s))) r tag v Hw ltac:(lia)) as Hm.
  rewrite <- Hm. apply walk_fuel; auto; lia.
Qed.

Lemma walk_node_std : forall f id tag nd e0 e1 a0 a1,
  find_node s id = Some nd -> nchildren nd = [e0; e1] ->
  walk sch s f (eref e0) (sc_tag sch tag (etag e0)) = Some a0 ->
  walk sch s f (eref e1) (sc_tag sch tag (etag e1)) = Some a1 ->
  walk sch s (S (nlevels s)) (eref e0) (sc_tag sch tag (etag e0)) = Some a0 /\
  walk sch s (S (nlevels s)) (eref e1) (sc_tag sch tag (etag e1)) = Some a1 /\
  walk sch s (S (nlevels s)) (RN id) tag = Some (sc_comb sch a0 a1).
Proof.
  intros f id tag nd e0 e1 a0 a1 E Hc W0 W1.
  destruct (node_children_ok s id nd e0 e1 H E Hc) as [[O0 _] [O1 _]].
  split; [apply (walk_std f); assumption|]. split; [apply (walk_std f); assumption|].
  apply (walk_std (S f)); [exists nd; exact E|].
  rewrite (walk_node s f id tag nd e0 e1 E Hc), W0, W1. reflexivity.
Qed.

Hypothesis Hbin : binary (s_kind s).
Hypothesis Hterm_total : forall t tag, (exists v, term_val s t = Some v) ->
  exists a, sc_term sch s t tag = Some a.

Lemma walk_total : forall f r tag, ref_ok s r -> nlevels s - rlevel s r < f ->
  exists a, walk sch s f r tag = Some a.
Proof.
  induction f as [|f IH]; intros r tag Hok Hf; [lia|].
  destruct r as [t|id]; [rewrite walk_T; apply Hterm_total; exact Hok|].
  destruct Hok as [nd E]. rewrite (rlevel_node s id nd E) in Hf.
  destruct (two_children s id nd H Hbin E) as [e0 [e1 Hc]].
  rewrite (walk_node s f id tag nd e0 e1 E Hc).
  destruct (node_children_ok s id nd e0 e1 H E Hc) as [[O0 L0] [O1 L1]].
  pose proof (rlevel_le s H (eref e0)). pose proof (rlevel_le s H (eref e1)).
  destruct (IH (eref e0) (sc_tag sch tag (etag e0)) O0 ltac:(lia)) as [a Ea].
  destruct (IH (eref e1) (sc_tag sch tag (etag e1)) O1 ltac:(lia)) as [b Eb].
  rewrite Ea, Eb. eauto.
Qed.

(** ** The cache *)

Hypothesis key_inj : forall t t' id id', sc_tagok sch t = true -> sc_tagok sch t' = true ->
  sc_key sch t id = sc_key sch t' id' -> id = id' /\ t = t'.
Hypothesis tag_closed : forall t ct, sc_tagok sch t = true -> sc_tagok sch (sc_tag sch t ct) = true.

(** every entry is the value the uncached recursion computes for that node *)
Definition cache_ok (m : PositiveMap.t A) : Prop :=
  forall id tag v, sc_tagok sch tag = true ->
    PositiveMap.find (sc_key sch tag id) m = Some v ->
    walk sch s (S (nlevels s)) (RN id) tag = Some v.

Lemma cache_ok_empty : cache_ok (PositiveMap.empty A).
Proof. intros id tag v _ E. rewrite PositiveMap.gempty in E. discriminate. Qed.

Lemma cache_ok_add : forall m id tag v, cache_ok m -> sc_tagok sch tag = true ->
  walk sch s (S (nlevels s)) (RN id) tag = Some v ->
  cache_ok (PositiveMap.add (sc_key sch tag id) v m).
Proof.
  intros m id tag v Hm Ht Hw id' tag' v' Ht' E.
  destruct (Pos.eq_dec (sc_key sch tag' id') (sc_key sch tag id)) as [Ek|Ek].
  - rewrite Ek, PositiveMap.gss in E. inversion E; subst v'.
    destruct (key_inj _ _ _ _ Ht' Ht Ek) as [-> ->]. exact Hw.
  - rewrite PositiveMap.gso in E by exact Ek. apply (Hm id' tag' v' Ht' E).
Qed.

(** The cached recursion returns what the uncached one returns, and keeps the
    cache exact. *)
Theorem walkc_sound : forall f all r tag m v, ref_ok s r -> sc_tagok sch tag = true ->
  cache_ok m -> walk sch s f r tag = Some v ->
  exists m', walkc sch s f all r tag m = Some (v, m') /\ cache_ok m'.
Proof.
  induction f as [|f IH]; intros all r tag m v Hok Ht Hm Hw.
  - destruct r as [t|id]; [|discriminate]. rewrite walk_T in Hw. simpl. rewrite Hw. eauto.
  - destruct r as [t|id].
    { rewrite walk_T in Hw. simpl. rewrite Hw. eauto. }
    pose proof (walk_std (S f) (RN id) tag v Hok Hw) as Hstd.
    rewrite walk_S in Hw. simpl walkc.
    destruct (find_node s id) as [nd|] eqn:E; [|discriminate].
    set (dc := all || (1 <? nrc nd)%N).
    destruct (if dc then PositiveMap.find (sc_key sch tag id) m else None) as [n|] eqn:Ef.
    + destruct dc; [|discriminate].
      pose proof (Hm id tag n Ht Ef) as Hn. rewrite Hstd in Hn. inversion Hn; subst n. eauto.
    + destruct (nchildren nd) as [|e0 [|e1 [|e2 r]]] eqn:Hc; try discriminate.
      destruct (node_children_ok s id nd e0 e1 H E Hc) as [[O0 _] [O1 _]].
      destruct (walk sch s f (eref e0) _) as [a|] eqn:Ea; [|discriminate].
      destruct (walk sch s f (eref e1) _) as [b|] eqn:Eb; [|discriminate].
      inversion Hw; subst v.
      destruct (IH all (eref e0) _ m a O0 (tag_closed _ _ Ht) Hm Ea) as [m1 [W1 C1]].
      destruct (IH all (eref e1) _ m1 b O1 (tag_closed _ _ Ht) C1 Eb) as [m2 [W2 C2]].
      rewrite W1, W2. eexists. split; [reflexivity|].
      destruct dc; [|exact C2]. apply cache_ok_add; auto.
Qed.

End OnSnap.

(** ** Invariance under table extension *)

Lemma walk_same_table : forall s s', WF s -> same_table s s' ->
  (forall t tag, sc_term sch s' t tag = sc_term sch s t tag) ->
  forall f r tag, ref_ok s r -> walk sch s' f r tag = walk sch s f r tag.
Proof.
  intros s s' H X Ht. induction f as [|f IH]; intros r tag Hok.
  - destruct r as [t|id]; [rewrite !walk_T; apply Ht | reflexivity].
  - destruct r as [t|id]; [rewrite !walk_T; apply Ht|].
    rewrite !walk_S. destruct Hok as [nd E].
    destruct (st_nodes s s' X id nd E) as [nd' [E' Hc']]. rewrite E, E', Hc'.
    destruct (nchildren nd) as [|e0 [|e1 [|e2 r]]] eqn:Hc; try reflexivity.
    destruct (node_children_ok s id nd e0 e1 H E Hc) as [[O0 _] [O1 _]].
    rewrite (IH (eref e0)), (IH (eref e1)) by assumption. reflexivity.
Qed.

Lemma same_table_ref_ok : forall s s' r, same_table s s' -> ref_ok s r -> ref_ok s' r.
Proof.
  intros s s' [t|id] X; simpl.
  - rewrite (st_terms s s' X). auto.
  - intros [nd E]. destruct (st_nodes s s' X id nd E) as [nd' [E' _]]. eauto.
Qed.

(** an exact cache stays exact when the table is extended (same epoch) *)
Lemma cache_ok_same_table : forall s s' m, WF s -> WF s' -> same_table s s' ->
  (forall t tag, sc_term sch s' t tag = sc_term sch s t tag) ->
  cache_ok s m -> cache_ok s' m.
Proof.
  intros s s' m H H' X Ht Hm id tag v Htag E.
  pose proof (Hm id tag v Htag E) as Hw.
  assert (Hok : ref_ok s (RN id)).
  { rewrite walk_S in Hw. simpl. destruct (find_node s id) as [nd|]; [eauto | discriminate]. }
  rewrite <- (walk_same_table s s' H X Ht _ _ _ Hok) in Hw.
  apply (walk_std s' H' _ _ _ _ (same_table_ref_ok s s' _ X Hok) Hw).
Qed.

End WalkGen.

Section Sim.
Context {A B : Type}.
Variables (sa : scheme A) (sb : scheme B) (R : A -> B -> Prop) (s : snap).
Hypothesis Htag : forall t c, sc_tag sb t c = sc_tag sa t c.
Hypothesis Hterm : forall t tag a, sc_term sa s t tag = Some a ->
  exists b, sc_term sb s t tag = Some b /\ R a b.
Hypothesis Hcomb : forall f id nd e0 e1 tag a0 a1 b0 b1,
  find_node s id = Some nd -> nchildren nd = [e0; e1] ->
  walk sa s f (eref e0) (sc_tag sa tag (etag e0)) = Some a0 ->
  walk sa s f (eref e1) (sc_tag sa tag (etag e1)) = Some a1 ->
  R a0 b0 -> R a1 b1 -> R (sc_comb sa a0 a1) (sc_comb sb b0 b1).

Lemma walk_sim : forall f r tag a, walk sa s f r tag = Some a ->
  exists b, walk sb s f r tag = Some b /\ R a b.
Proof.
  induction f as [|f IH]; intros r tag a Hw.
  - destruct r as [t|id]; [|simpl in Hw; discriminate]. rewrite walk_T in *. apply Hterm. exact Hw.
  - destruct r as [t|id]; [rewrite walk_T in *; apply Hterm; exact Hw|].
    rewrite walk_S in Hw. rewrite walk_S. revert Hw.
    destruct (find_node s id) as [nd|] eqn:E; [|discriminate].
    destruct (nchildren nd) as [|e0 [|e1 [|e2 l]]] eqn:Hc; try discriminate.
    destruct (walk sa s f (eref e0) _) as [a0|] eqn:E0; [|discriminate].
    destruct (walk sa s f (eref e1) _) as [a1|] eqn:E1; [|discriminate].
    intros Hw. inversion Hw; subst a.
    destruct (IH _ _ _ E0) as [b0 [W0 R0]]. destruct (IH _ _ _ E1) as [b1 [W1 R1]].
    rewrite !Htag, W0, W1. eexists. split; [reflexivity|].
    apply (Hcomb f id nd e0 e1 tag a0 a1 b0 b1 E Hc E0 E1 R0 R1).
Qed.

End Sim.

Section SimOps.
Context {A B : Type}.
Variables (oa : numops A) (ob : numops B) (R : A -> B -> Prop) (s : snap).
Hypothesis Rzero : R (n_zero oa) (n_zero ob).

Lemma walk_sim_bdd : forall ta tb, R ta tb ->
  (forall f id nd e0 e1 a0 a1 b0 b1, find_node s id = Some nd -> nchildren nd = [e0; e1] ->
     walk (bdd_scheme oa ta) s f (eref e0) false = Some a0 ->
     walk (bdd_scheme oa ta) s f (eref e1) false = Some a1 -> R a0 b0 -> R a1 b1 ->
     R (n_shr oa (n_add oa a0 a1) 1) (n_shr ob (n_add ob b0 b1) 1)) ->
  forall f r a, walk (bdd_scheme oa ta) s f r false = Some a ->
  exists b, walk (bdd_scheme ob tb) s f r false = Some b /\ R a b.
Proof.
  intros ta tb Rt Hc f r a.
  apply (walk_sim (bdd_scheme oa ta) (bdd_scheme ob tb) R s);
    [reflexivity | | exact (fun f id nd e0 e1 _ => Hc f id nd e0 e1)].
  intros t tag x. simpl. destruct (term_val s t) as [v|]; [|discriminate]. intros E. injection E as <-.
  eexists. split; [reflexivity|]. destruct (N.eqb v 1); assumption.
Qed.

Lemma walk_sim_bcdd : forall ta tb, R ta tb ->
  (forall f id nd e0 e1 tag a0 a1 b0 b1, find_node s id = Some nd -> nchildren nd = [e0; e1] ->
     walk (bcdd_scheme oa ta) s f (eref e0) (xorb tag (etag e0)) = Some a0 ->
     walk (bcdd_scheme oa ta) s f (eref e1) (xorb tag (etag e1)) = Some a1 -> R a0 b0 -> R a1 b1 ->
     R (n_shr oa (n_add oa a0 a1) 1) (n_shr ob (n_add ob b0 b1) 1)) ->
  forall f r tag a, walk (bcdd_scheme oa ta) s f r tag = Some a ->
  exists b, walk (bcdd_scheme ob tb) s f r tag = Some b /\ R a b.
Proof.
  intros ta tb Rt Hc.
  apply (walk_sim (bcdd_scheme oa ta) (bcdd_scheme ob tb) R s); [reflexivity | | exact Hc].
  intros t tag x E. injection E as <-. eexists. split; [reflexivity|]. destruct tag; assumption.
Qed.

Lemma walk_sim_zbdd : R (n_one oa) (n_one ob) ->
  (forall f id nd e0 e1 a0 a1 b0 b1, find_node s id = Some nd -> nchildren nd = [e0; e1] ->
     walk (zbdd_scheme oa) s f (eref e0) false = Some a0 ->
     walk (zbdd_scheme oa) s f (eref e1) false = Some a1 -> R a0 b0 -> R a1 b1 ->
     R (n_add oa a0 a1) (n_add ob b0 b1)) ->
  forall f r a, walk (zbdd_scheme oa) s f r false = Some a ->
  exists b, walk (zbdd_scheme ob) s f r false = Some b /\ R a b.
Proof.
  intros Rone Hc f r a.
  apply (walk_sim (zbdd_scheme oa) (zbdd_scheme ob) R s);
    [reflexivity | | exact (fun f id nd e0 e1 _ => Hc f id nd e0 e1)].
  intros t tag x. simpl. destruct (term_val s t) as [v|]; [|discriminate]. intros E. injection E as <-.
  eexists. split; [reflexivity|]. destruct (N.eqb v 1); assumption.
Qed.

End SimOps.

(** * Part B: counting level-assignments *)

(** [f] does not look at level [l] *)
Definition indep (f : lasg -> bool) (l : nat) : Prop := forall a b, f (updb a l b) = f a.

Lemma cnt_ext : forall k l f g, (forall a, f a = g a) -> cnt k l f = cnt k l g.
Proof.
  induction k as [|k IH]; intros l f g Hfg; simpl.
  - rewrite Hfg. reflexivity.
  - rewrite (IH (S l) (fun a => f (updb a l true)) (fun a => g (updb a l true))) by (intros; apply Hfg).
    rewrite (IH (S l) (fun a => f (updb a l false)) (fun a => g (updb a l false))) by (intros; apply Hfg).
    reflexivity.
Qed.

Lemma cnt_indep : forall k l f, indep f l -> (cnt (S k) l f = 2 * cnt k (S l) f)%N.
Proof.
  intros k l f Hi. simpl.
  rewrite (cnt_ext k (S l) (fun a => f (updb a l true)) f) by (intros; apply Hi).
  rewrite (cnt_ext k (S l) (fun a => f (updb a l false)) f) by (intros; apply Hi).
  lia.
Qed.

Lemma pow2_S : forall j, (2 ^ N.of_nat (S j) = 2 * 2 ^ N.of_nat j)%N.
Proof. intros j. rewrite Nat2N.inj_succ, N.pow_succ_r'. reflexivity. Qed.

Lemma pow2_add : forall a b, (2 ^ N.of_nat (a + b) = 2 ^ N.of_nat a * 2 ^ N.of_nat b)%N.
Proof. intros a b. rewrite Nat2N.inj_add, N.pow_add_r. reflexivity. Qed.

Lemma pow2_sub : forall a b, b <= a -> (2 ^ N.of_nat (a - b) * 2 ^ N.of_nat b = 2 ^ N.of_nat a)%N.
Proof. intros a b Hab. rewrite <- pow2_add. f_equal. f_equal. lia. Qed.

Lemma pow2_pos : forall k, (0 < 2 ^ k)%N.
Proof. intros k. apply N.neq_0_lt_0. apply N.pow_nonzero. discriminate. Qed.

(** levels the function does not look at double the count *)
Lemma cnt_skip : forall j k l f, (forall i, l <= i < l + j -> indep f i) ->
  (cnt (j + k) l f = 2 ^ N.of_nat j * cnt k (l + j) f)%N.
Proof.
  induction j as [|j IH]; intros k l f Hi.
  - simpl plus. rewrite Nat.add_0_r. change (N.of_nat 0) with 0%N. rewrite N.pow_0_r. lia.
  - change (S j + k) with (S (j + k)). rewrite cnt_indep by (apply Hi; lia).
    rewrite (IH k (S l) f) by (intros i Hr; apply Hi; lia).
    replace (l + S j) with (S l + j) by lia. rewrite pow2_S. lia.
Qed.

Lemma cnt_const : forall k l b, cnt k l (fun _ => b) = if b then (2 ^ N.of_nat k)%N else 0%N.
Proof.
  induction k as [|k IH]; intros l b.
  - simpl. destruct b; reflexivity.
  - change (cnt (S k) l (fun _ => b)) with (cnt k (S l) (fun _ => b) + cnt k (S l) (fun _ => b))%N.
    rewrite IH, pow2_S. destruct b; lia.
Qed.

Lemma cnt_witness : forall k l f, cnt k l f <> 0%N -> exists a, f a = true.
Proof.
  induction k as [|k IH]; intros l f Hc; simpl in Hc.
  - exists (fun _ => false). destruct (f _); [reflexivity | contradiction].
  - destruct (N.eq_dec (cnt k (S l) (fun a => f (updb a l true))) 0) as [E|E].
    + rewrite E in Hc. destruct (IH (S l) (fun a => f (updb a l false)) Hc) as [a Ha]. eauto.
    + destruct (IH _ _ E) as [a Ha]. eauto.
Qed.

Lemma cnt_le : forall k l f, (cnt k l f <= 2 ^ N.of_nat k)%N.
Proof.
  induction k as [|k IH]; intros l f.
  - simpl. destruct (f _); change (2 ^ N.of_nat 0)%N with 1%N; lia.
  - change (cnt (S k) l f) with
      (cnt k (S l) (fun a => f (updb a l true)) + cnt k (S l) (fun a => f (updb a l false)))%N.
    pose proof (IH (S l) (fun a => f (updb a l true))).
    pose proof (IH (S l) (fun a => f (updb a l false))).
    rewrite pow2_S. lia.
Qed.

(** a level that must be false does not contribute *)
Lemma cnt_lo : forall k l f g, indep g l -> (forall a, f a = negb (a l) && g a) ->
  cnt (S k) l f = cnt k (S l) g.
Proof.
  intros k l f g Hi Hf.
  change (cnt (S k) l f) with
    (cnt k (S l) (fun a => f (updb a l true)) + cnt k (S l) (fun a => f (updb a l false)))%N.
  rewrite (cnt_ext k (S l) (fun a => f (updb a l true)) (fun _ => false)).
  2:{ intros a. rewrite Hf. unfold updb at 1. rewrite Nat.eqb_refl. reflexivity. }
  rewrite (cnt_ext k (S l) (fun a => f (updb a l false)) g).
  2:{ intros a. rewrite Hf. unfold updb at 1. rewrite Nat.eqb_refl. simpl. apply Hi. }
  rewrite cnt_const. lia.
Qed.

Lemma updb_same : forall a l b, updb a l b l = b.
Proof. intros. unfold updb. rewrite Nat.eqb_refl. reflexivity. Qed.

Lemma updb_other : forall a l b x, x <> l -> updb a l b x = a x.
Proof. intros a l b x Hx. unfold updb. destruct (Nat.eqb_spec x l); [contradiction | reflexivity]. Qed.

Lemma choice_of_lt : forall a l, choice_of a l < 2.
Proof. intros a l. unfold choice_of. destruct (a l); lia. Qed.

Lemma choice_of_ok : forall s a, choice_ok s (choice_of a).
Proof. intros s a l. pose proof (choice_of_lt a l). destruct (s_kind s); simpl; lia. Qed.

Lemma choice_of_updb_other : forall a l b x, x <> l -> choice_of (updb a l b) x = choice_of a x.
Proof. intros. unfold choice_of. rewrite updb_other by assumption. reflexivity. Qed.

Lemma choice_of_updb_same : forall a l b, choice_of (updb a l b) l = if b then 0 else 1.
Proof. intros. unfold choice_of. rewrite updb_same. reflexivity. Qed.

(** * Part C: exact counts *)

From OxiVerif Require Import DD.SatCache.

Lemma height_T : forall s f t, height s f (RT t) = 0.
Proof. destruct f; reflexivity. Qed.

Lemma height_node : forall s f id nd e0 e1, find_node s id = Some nd -> nchildren nd = [e0; e1] ->
  height s (S f) (RN id) = S (Nat.max (height s f (eref e0)) (height s f (eref e1))).
Proof. intros s f id nd e0 e1 E Hc. simpl. rewrite E, Hc. simpl. rewrite Nat.max_0_r. reflexivity. Qed.

(** a path visits at most one node per level *)
Lemma height_le_levels : forall s, WF s -> binary (s_kind s) -> forall f r, ref_ok s r ->
  height s f r <= nlevels s - rlevel s r.
Proof.
  intros s H Hb. induction f as [|f IH]; intros r Hok.
  - destruct r; simpl; lia.
  - destruct r as [t|id]; [simpl; lia|]. destruct Hok as [nd E].
    destruct (two_children s id nd H Hb E) as [e0 [e1 Hc]].
    rewrite (height_node s f id nd e0 e1 E Hc), (rlevel_node s id nd E).
    destruct (node_children_ok s id nd e0 e1 H E Hc) as [[O0 L0] [O1 L1]].
    pose proof (IH _ O0). pose proof (IH _ O1). pose proof (wf_level s H id nd E). lia.
Qed.

Local Open Scope N_scope.

Lemma pow2_multiple : forall q (a b : nat), (b <= a)%nat -> exists k, q * 2 ^ N.of_nat a = k * 2 ^ N.of_nat b.
Proof. intros q a b Hab. exists (q * 2 ^ N.of_nat (a - b)). rewrite <- (pow2_sub a b Hab). apply N.mul_assoc. Qed.

Lemma halve_exact : forall v0 v1 w p V c0 c1 c,
  v0 + v1 = w * 2 -> v0 * p = V * c0 -> v1 * p = V * c1 -> c0 + c1 = 2 * c -> w * p = V * c.
Proof.
  intros v0 v1 w p V c0 c1 c Hs T0 T1 Hc. apply (N.mul_cancel_l _ _ 2); [discriminate|].
  rewrite N.mul_assoc, (N.mul_comm 2 w), <- Hs, N.mul_add_distr_r, T0, T1, <- N.mul_add_distr_l, Hc. ring.
Qed.

Local Close Scope N_scope.

(** ** The halving recursion (BDD, BCDD)

    What the two kinds have in common.  [F r tag] is the function of
    level-assignments denoted by the reference [r] reached with tag [tag]: a
    constant at a terminal, blind to the levels above [r], and fixing the level
    of a node selects a child.  The scheme [sch] gives the true terminal the
    value [2^vars] and halves the sum of the children's values. *)
Record halving (s : snap) (vars : nat) (sch : scheme N) (F : ref -> bool -> lasg -> bool) : Prop := mkHalving {
  hv_comb : forall a b, sc_comb sch a b = ((a + b) / 2)%N;
  hv_term : forall t tag, ref_ok s (RT t) -> exists b : bool,
    sc_term sch s t tag = Some (if b then 2 ^ N.of_nat vars else 0)%N /\ forall a, F (RT t) tag a = b;
  hv_indep : forall r tag i, i < rlevel s r -> indep (F r tag) i;
  hv_child : forall id tag nd e0 e1 a b, find_node s id = Some nd -> nchildren nd = [e0; e1] ->
    F (RN id) tag (updb a (nlevel nd) b) =
    F (eref (if b then e0 else e1)) (sc_tag sch tag (etag (if b then e0 else e1))) a
}.

Section Halving.
Variables (s : snap) (vars : nat) (sch : scheme N) (F : ref -> bool -> lasg -> bool).
Hypothesis H : WF s.
Hypothesis X : halving s vars sch F.

Let n := nlevels s.
Let K : N := (2 ^ N.of_nat (vars - n))%N.

Lemma cnt_above : forall l r tag, l <= rlevel s r ->
  (count_levels n (F r tag) = 2 ^ N.of_nat l * cnt (n - l) l (F r tag))%N.
Proof.
  intros l r tag Hl. pose proof (rlevel_le s H r) as Hle. fold n in Hle.
  unfold count_levels. replace n with (l + (n - l)) at 1 by lia.
  rewrite cnt_skip by (intros i Hi; apply (hv_indep _ _ _ _ X); lia). reflexivity.
Qed.

Lemma cnt_node : forall id tag nd e0 e1, find_node s id = Some nd -> nchildren nd = [e0; e1] ->
  (cnt (n - nlevel nd) (nlevel nd) (F (RN id) tag) =
   cnt (n - S (nlevel nd)) (S (nlevel nd)) (F (eref e0) (sc_tag sch tag (etag e0))) +
   cnt (n - S (nlevel nd)) (S (nlevel nd)) (F (eref e1) (sc_tag sch tag (etag e1))))%N.
Proof.
  intros id tag nd e0 e1 E Hc. pose proof (wf_level s H id nd E) as Hl. fold n in Hl.
  replace (n - nlevel nd) with (S (n - S (nlevel nd))) by lia. cbn [cnt].
  f_equal; apply cnt_ext; intros a;
    [exact (hv_child _ _ _ _ X id tag nd e0 e1 a true E Hc) | exact (hv_child _ _ _ _ X id tag nd e0 e1 a false E Hc)].
Qed.

Lemma count_node : forall id tag nd e0 e1, find_node s id = Some nd -> nchildren nd = [e0; e1] ->
  (count_levels n (F (eref e0) (sc_tag sch tag (etag e0))) +
   count_levels n (F (eref e1) (sc_tag sch tag (etag e1))) = 2 * count_levels n (F (RN id) tag))%N.
Proof.
  intros id tag nd e0 e1 E Hc.
  destruct (node_children_ok s id nd e0 e1 H E Hc) as [[O0 L0] [O1 L1]].
  rewrite (cnt_above (S (nlevel nd)) (eref e0)), (cnt_above (S (nlevel nd)) (eref e1)) by lia.
  rewrite (cnt_above (nlevel nd) (RN id)) by (rewrite (rlevel_node s id nd E); lia).
  rewrite (cnt_node id tag nd e0 e1 E Hc), pow2_S. lia.
Qed.

Hypothesis Hbin : binary (s_kind s).

(** The recursion for every [vars], also below the number of levels: the
    value of a reference under which no path visits more than [vars] nodes,
    scaled by [2^levels], is [2^vars] times its count; it is a multiple of
    [2^(vars - height)], which makes every halving exact. *)
Local Open Scope N_scope.

Lemma walk_small : forall f r tag, ref_ok s r -> (n - rlevel s r < f)%nat -> (height s f r <= vars)%nat ->
  exists v, walk sch s f r tag = Some v /\
    v * 2 ^ N.of_nat n = 2 ^ N.of_nat vars * count_levels n (F r tag) /\
    exists q, v = q * 2 ^ N.of_nat (vars - height s f r).
Proof.
  induction f as [|f IH]; intros r tag Hok Hf Hh; [lia|].
  destruct r as [t|id].
  - rewrite walk_T, height_T, Nat.sub_0_r. destruct (hv_term _ _ _ _ X t tag Hok) as [b [-> Fb]].
    eexists. split; [reflexivity|]. unfold count_levels.
    rewrite (cnt_ext n 0 (F (RT t) tag) (fun _ => b) Fb), cnt_const.
    destruct b; [split; [reflexivity | exists 1; lia] | split; [lia | exists 0; reflexivity]].
  - destruct Hok as [nd E]. rewrite (rlevel_node s id nd E) in Hf.
    destruct (two_children s id nd H Hbin E) as [e0 [e1 Hc]].
    destruct (node_children_ok s id nd e0 e1 H E Hc) as [[O0 L0] [O1 L1]].
    pose proof (rlevel_le s H (eref e0)) as B0. pose proof (rlevel_le s H (eref e1)) as B1. fold n in B0, B1.
    rewrite (height_node s f id nd e0 e1 E Hc) in *.
    set (h0 := height s f (eref e0)) in *. set (h1 := height s f (eref e1)) in *.
    destruct (IH (eref e0) (sc_tag sch tag (etag e0)) O0 ltac:(lia) ltac:(fold h0; lia)) as [v0 [W0 [T0 [q0 Q0]]]].
    destruct (IH (eref e1) (sc_tag sch tag (etag e1)) O1 ltac:(lia) ltac:(fold h1; lia)) as [v1 [W1 [T1 [q1 Q1]]]].
    fold h0 in Q0. fold h1 in Q1.
    set (h := S (Nat.max h0 h1)) in *.
    (* both children's values are multiples of 2 * 2^(vars - h) *)
    destruct (pow2_multiple q0 (vars - h0) (S (vars - h)) ltac:(clear - Hh; lia)) as [k0 E0].
    destruct (pow2_multiple q1 (vars - h1) (S (vars - h)) ltac:(clear - Hh; lia)) as [k1 E1].
    rewrite <- Q0 in E0. rewrite <- Q1 in E1. rewrite Nat2N.inj_succ, N.pow_succ_r' in E0, E1.
    set (P := 2 ^ N.of_nat (vars - h)) in *.
    assert (Hsum : v0 + v1 = ((k0 + k1) * P) * 2) by (rewrite E0, E1; ring).
    exists ((k0 + k1) * P).
    rewrite (walk_node sch s f id tag nd e0 e1 E Hc), W0, W1, (hv_comb _ _ _ _ X), Hsum, N.div_mul by discriminate.
    split; [reflexivity|]. split; [|exists (k0 + k1); reflexivity].
    exact (halve_exact _ _ _ _ _ _ _ _ Hsum T0 T1 (count_node id tag nd e0 e1 E Hc)).
Qed.

Local Close Scope N_scope.

Hypothesis Hvars : nlevels s <= vars.

Lemma halving_main : forall f r tag, ref_ok s r -> n - rlevel s r < f ->
  walk sch s f r tag = Some (K * count_levels n (F r tag))%N.
Proof.
  intros f r tag Hok Hf. pose proof (height_le_levels s H Hbin f r Hok) as Hh. fold n in Hh.
  destruct (walk_small f r tag Hok Hf ltac:(lia)) as [v [W [T _]]]. rewrite W. f_equal.
  rewrite <- (pow2_sub vars n Hvars), <- N.mul_assoc, (N.mul_comm (2 ^ N.of_nat n)), N.mul_assoc in T.
  exact (proj1 (N.mul_cancel_r _ _ _ (N.pow_nonzero 2 _ ltac:(discriminate))) T).
Qed.

Lemma halving_node : forall f id tag nd e0 e1 a b,
  find_node s id = Some nd -> nchildren nd = [e0; e1] ->
  walk sch s f (eref e0) (sc_tag sch tag (etag e0)) = Some a ->
  walk sch s f (eref e1) (sc_tag sch tag (etag e1)) = Some b ->
  ((a + b) mod 2 = 0 /\ (a + b) / 2 = K * count_levels n (F (RN id) tag) /\ 2 * ((a + b) / 2) = a + b)%N.
Proof.
  intros f id tag nd e0 e1 a b E Hc Wa Wb.
  destruct (node_children_ok s id nd e0 e1 H E Hc) as [[O0 _] [O1 _]].
  apply (walk_std sch s H f _ _ _ O0) in Wa. apply (walk_std sch s H f _ _ _ O1) in Wb.
  rewrite halving_main in Wa, Wb by (assumption || lia). injection Wa as <-. injection Wb as <-.
  rewrite <- N.mul_add_distr_l, (count_node id tag nd e0 e1 E Hc).
  replace (K * (2 * count_levels n (F (RN id) tag)))%N
    with (K * count_levels n (F (RN id) tag) * 2)%N by lia.
  rewrite N.mod_mul, N.div_mul by discriminate. repeat split; lia.
Qed.

End Halving.

From OxiVerif Require Import DD.Canon.

Lemma bdd_binary : forall s, s_kind s = KBdd -> binary (s_kind s).
Proof. intros s Hk. unfold binary. rewrite Hk. discriminate. Qed.

Section SatBdd.
Variable s : snap.
Hypothesis H : WF s.

(** [fun_bdd] does not look at the levels above the reference *)
Lemma fun_bdd_indep : forall r i, i < rlevel s r -> indep (fun_bdd s r) i.
Proof.
  intros r i Hi a b. unfold fun_bdd. f_equal. apply (semk_ext s H). intros l Hl.
  apply choice_of_updb_other. lia.
Qed.

(** fixing the node's level selects the child *)
Lemma fun_bdd_child : forall id nd e0 e1 a b,
  find_node s id = Some nd -> nchildren nd = [e0; e1] ->
  fun_bdd s (RN id) (updb a (nlevel nd) b) = fun_bdd s (eref (if b then e0 else e1)) a.
Proof.
  intros id nd e0 e1 a b E Hc. unfold fun_bdd. f_equal.
  set (i := if b then 0 else 1).
  assert (Hn : nth_error (nchildren nd) i = Some (if b then e0 else e1))
    by (rewrite Hc; unfold i; destruct b; reflexivity).
  pose proof (child_sem s H id nd i _ (choice_of a) E Hn) as Hs. unfold semn in Hs.
  rewrite Hs. apply (semk_ext s H). intros l Hl. unfold upd.
  destruct (Nat.eqb_spec l (nlevel nd)) as [->|Hne].
  - rewrite choice_of_updb_same. unfold i. destruct b; reflexivity.
  - apply choice_of_updb_other. exact Hne.
Qed.

Lemma fun_bdd_T : forall t v a, term_val s t = Some v -> fun_bdd s (RT t) a = N.eqb v 1.
Proof. intros t v a Ev. unfold fun_bdd. rewrite semk_T, Ev. reflexivity. Qed.

Lemma bdd_halving : forall vars,
  halving s vars (bdd_scheme exact_ops (2 ^ N.of_nat vars)%N) (fun r _ => fun_bdd s r).
Proof.
  intros vars. constructor.
  - reflexivity.
  - intros t tag [v Ev]. exists (N.eqb v 1). simpl. rewrite Ev. split; [reflexivity|].
    intros a. apply fun_bdd_T. exact Ev.
  - intros r _. apply fun_bdd_indep.
  - intros id _. apply fun_bdd_child.
Qed.

End SatBdd.

(** the total count of a node is the mean of its children's *)
Lemma total_node : forall s id nd e0 e1, WF s ->
  find_node s id = Some nd -> nchildren nd = [e0; e1] ->
  (count_levels (nlevels s) (fun_bdd s (eref e0)) + count_levels (nlevels s) (fun_bdd s (eref e1)) =
   2 * count_levels (nlevels s) (fun_bdd s (RN id)))%N.
Proof. intros s id nd e0 e1 H. exact (count_node s 0 _ _ H (bdd_halving s H 0) id false nd e0 e1). Qed.

Theorem sat_bdd_correct : forall s vars r, WF s -> s_kind s = KBdd -> nlevels s <= vars ->
  ref_ok s r ->
  sat_bdd s (S (nlevels s)) vars r =
  Some (2 ^ N.of_nat (vars - nlevels s) * count_levels (nlevels s) (fun_bdd s r))%N.
Proof.
  intros s vars r H Hk Hv Hok.
  apply (halving_main s vars _ _ H (bdd_halving s H vars) (bdd_binary s Hk) Hv); [exact Hok | lia].
Qed.

(** only the [n - l] levels below a reference of level [l] can lower the power
    of two *)
Theorem sat_bdd_divisible : forall s vars r, WF s -> s_kind s = KBdd -> nlevels s <= vars ->
  ref_ok s r ->
  sat_bdd s (S (nlevels s)) vars r =
  Some (2 ^ N.of_nat (vars - nlevels s + rlevel s r) *
        cnt (nlevels s - rlevel s r) (rlevel s r) (fun_bdd s r))%N.
Proof.
  intros s vars r H Hk Hv Hok. rewrite (sat_bdd_correct s vars r H Hk Hv Hok). f_equal.
  rewrite (cnt_above s vars _ _ H (bdd_halving s H vars) (rlevel s r) r false (le_n _)), pow2_add. lia.
Qed.

Theorem sat_bdd_halving_exact : forall s vars id nd e0 e1 a b,
  WF s -> s_kind s = KBdd -> nlevels s <= vars ->
  find_node s id = Some nd -> nchildren nd = [e0; e1] ->
  sat_bdd s (S (nlevels s)) vars (eref e0) = Some a ->
  sat_bdd s (S (nlevels s)) vars (eref e1) = Some b ->
  ((a + b) mod 2 = 0 /\ sat_bdd s (S (nlevels s)) vars (RN id) = Some ((a + b) / 2) /\
   2 * ((a + b) / 2) = a + b)%N.
Proof.
  intros s vars id nd e0 e1 a b H Hk Hv E Hc Ha Hb.
  destruct (halving_node s vars _ _ H (bdd_halving s H vars) (bdd_binary s Hk) Hv
              _ id false nd e0 e1 a b E Hc Ha Hb) as (Hm & Hq & Hd).
  split; [exact Hm|]. split; [|exact Hd]. rewrite Hq.
  apply sat_bdd_correct; try assumption. exists nd. exact E.
Qed.

Lemma sat_bdd_le : forall s vars r v, WF s -> s_kind s = KBdd -> nlevels s <= vars ->
  ref_ok s r -> sat_bdd s (S (nlevels s)) vars r = Some v -> (v <= 2 ^ N.of_nat vars)%N.
Proof.
  intros s vars r v H Hk Hv Hok Hr. rewrite (sat_bdd_correct s vars r H Hk Hv Hok) in Hr. injection Hr as <-.
  rewrite <- (pow2_sub vars (nlevels s) Hv). apply N.mul_le_mono_l. apply cnt_le.
Qed.

Section BddConst.
Variable s : snap.
Hypothesis H : WF s.
Hypothesis Hkind : s_kind s = KBdd.

Let n := nlevels s.
Let T (r : ref) : N := count_levels n (fun_bdd s r).

Lemma T_term : forall t v, term_val s t = Some v ->
  T (RT t) = if N.eqb v 1 then (2 ^ N.of_nat n)%N else 0%N.
Proof.
  intros t v Ev. unfold T, count_levels.
  rewrite (cnt_ext n 0 (fun_bdd s (RT t)) (fun _ => N.eqb v 1)) by (intros a; apply fun_bdd_T; exact Ev).
  apply cnt_const.
Qed.

(** only a terminal denotes a constant (a node with two such children would
    be redundant); for the constant false this needs that 0 and 1 are the only
    terminal values *)
Lemma const_is_term : forall b : bool,
  (b = false -> forall t v, term_val s t = Some v -> v = 0%N \/ v = 1%N) ->
  forall k r, ref_ok s r -> n - rlevel s r <= k ->
  T r = (if b then 2 ^ N.of_nat n else 0)%N ->
  exists t, r = RT t /\ term_val s t = Some (if b then 1 else 0)%N.
Proof.
  intros b Hcodes. induction k as [k IH] using lt_wf_ind. intros r Hok Hk HT.
  pose proof (pow2_pos (N.of_nat n)) as Hp.
  destruct r as [t|id].
  - destruct Hok as [v Ev]. rewrite (T_term t v Ev) in HT. exists t. split; [reflexivity|].
    destruct (N.eqb_spec v 1) as [->|Hne]; destruct b; try lia; [exact Ev|].
    destruct (Hcodes eq_refl t v Ev) as [->|]; [exact Ev | contradiction].
  - exfalso. destruct Hok as [nd E]. rewrite (rlevel_node s id nd E) in Hk.
    pose proof (wf_level s H id nd E) as Hlv. fold n in Hlv.
    destruct (two_children s id nd H (bdd_binary s Hkind) E) as [e0 [e1 Hc]].
    destruct (node_children_ok s id nd e0 e1 H E Hc) as [[O0 L0] [O1 L1]].
    pose proof (total_node s id nd e0 e1 H E Hc) as Ht. fold n in Ht. fold (T (eref e0)) in Ht.
    fold (T (eref e1)) in Ht. fold (T (RN id)) in Ht.
    assert (B0 : (T (eref e0) <= 2 ^ N.of_nat n)%N) by apply cnt_le.
    assert (B1 : (T (eref e1) <= 2 ^ N.of_nat n)%N) by apply cnt_le.
    destruct (IH (n - rlevel s (eref e0)) ltac:(lia) (eref e0) O0 (le_n _) ltac:(destruct b; lia)) as [t0 [R0 V0]].
    destruct (IH (n - rlevel s (eref e1)) ltac:(lia) (eref e1) O1 (le_n _) ltac:(destruct b; lia)) as [t1 [R1 V1]].
    assert (t0 = t1) by (apply (term_val_inj s t0 t1 _ H V0 V1)). subst t1.
    assert (Hnb : s_kind s <> KBcdd) by (rewrite Hkind; discriminate).
    assert (I0 : In e0 (nchildren nd)) by (rewrite Hc; simpl; auto).
    assert (I1 : In e1 (nchildren nd)) by (rewrite Hc; simpl; auto).
    assert (e0 = e1).
    { apply edge_ext; [congruence|].
      rewrite (wf_tags s H Hnb id nd e0 E I0), (wf_tags s H Hnb id nd e1 E I1). reflexivity. }
    pose proof (wf_reduced s H id nd E) as Hr. unfold reduced in Hr. rewrite Hkind in Hr.
    apply Hr. rewrite Hc. subst e1. intros x y [<-|[<-|[]]] [<-|[<-|[]]]; reflexivity.
Qed.

Lemma node_not_full : forall id nd, find_node s id = Some nd -> (T (RN id) + 1 <= 2 ^ N.of_nat n)%N.
Proof.
  intros id nd E.
  assert (B : (T (RN id) <= 2 ^ N.of_nat n)%N) by apply cnt_le.
  destruct (N.eq_dec (T (RN id)) (2 ^ N.of_nat n)) as [Heq|Hne]; [|lia].
  destruct (const_is_term true ltac:(discriminate) _ (RN id) ltac:(exists nd; exact E) (le_n _) Heq) as [t [R _]].
  discriminate.
Qed.

Lemma node_not_empty : (forall t v, term_val s t = Some v -> v = 0%N \/ v = 1%N) ->
  forall id nd, find_node s id = Some nd -> T (RN id) <> 0%N.
Proof.
  intros Hcodes id nd E Heq.
  destruct (const_is_term false (fun _ => Hcodes) _ (RN id) ltac:(exists nd; exact E) (le_n _) Heq) as [t [R _]].
  discriminate.
Qed.

End BddConst.

Example ex_sat_bdd_wf : wf_b ex_sat_bdd = true.
Proof. vm_compute. reflexivity. Qed.

(* (x0 /\ x1) \/ x2: 5 models over 3 variables, 10 over 4 *)
Example ex_sat_bdd_count :
  sat_bdd ex_sat_bdd 4 3 (RN 4) = Some 5%N /\
  sat_bdd ex_sat_bdd 4 4 (RN 4) = Some 10%N /\
  count_levels 3 (fun_bdd ex_sat_bdd (RN 4)) = 5%N /\
  sat_bdd ex_sat_bdd 4 3 (RT 0) = Some 0%N /\ sat_bdd ex_sat_bdd 4 3 (RT 1) = Some 8%N.
Proof. vm_compute. repeat split; reflexivity. Qed.

(* the cached run: same values; the shared node 2 (ref_count 2) is cached *)
Example ex_sat_bdd_cached :
  match sat_bdd_c ex_sat_bdd 4 3 false (RN 4) (PositiveMap.empty N) with
  | Some (v, m) => v = 5%N /\ PositiveMap.elements m = [(2%positive, 4%N)]
  | None => False
  end.
Proof. vm_compute. split; reflexivity. Qed.

(** ** BCDD *)

From OxiVerif Require Import DD.CanonBcdd.

Lemma semc_retag : forall s f x t c,
  semc s f (mkEdge (eref x) (xorb t (etag x))) c = option_map (xorb t) (semc s f x c).
Proof.
  intros s f x t c. destruct (eref x) as [u|id] eqn:Er.
  - rewrite (semc_T s f _ c u) by reflexivity. rewrite (semc_T s f x c u Er). simpl.
    destruct t, (etag x); reflexivity.
  - destruct f as [|f].
    + rewrite (semc_O s _ c id) by reflexivity. rewrite (semc_O s x c id Er). reflexivity.
    + rewrite (semc_S s f _ c id) by reflexivity. rewrite (semc_S s f x c id Er).
      destruct (find_node s id) as [nd|]; [|reflexivity].
      destruct (nth_error (nchildren nd) (c (nlevel nd))) as [e'|]; [|reflexivity].
      destruct (semc s f e' c) as [b|]; [|reflexivity]. simpl.
      destruct t, (etag x), b; reflexivity.
Qed.

Lemma bcdd_binary : forall s, s_kind s = KBcdd -> binary (s_kind s).
Proof. intros s Hk. unfold binary. rewrite Hk. discriminate. Qed.

Lemma edge_eta : forall e, mkEdge (eref e) (etag e) = e.
Proof. intros [r t]. reflexivity. Qed.

Section SatBcdd.
Variable s : snap.
Hypothesis H : WF s.

(** the function of the edge (r, tag) *)
Definition Fc (r : ref) (tag : bool) : lasg -> bool := fun_bcdd s (mkEdge r tag).

Lemma Fc_indep : forall r tag i, i < rlevel s r -> indep (Fc r tag) i.
Proof.
  intros r tag i Hi a b. unfold Fc, fun_bcdd. f_equal. apply (semc_ext s H). simpl eref.
  intros l Hl. apply choice_of_updb_other. lia.
Qed.

Lemma Fc_child : forall id tag nd e0 e1 a b,
  find_node s id = Some nd -> nchildren nd = [e0; e1] ->
  Fc (RN id) tag (updb a (nlevel nd) b) =
  Fc (eref (if b then e0 else e1)) (xorb tag (etag (if b then e0 else e1))) a.
Proof.
  intros id tag nd e0 e1 a b E Hc. unfold Fc, fun_bcdd. f_equal.
  set (i := if b then 0 else 1). set (x := if b then e0 else e1).
  assert (Hn : nth_error (nchildren nd) i = Some x)
    by (rewrite Hc; unfold i, x; destruct b; reflexivity).
  pose proof (child_semc s H (mkEdge (RN id) tag) id nd i x (choice_of a) eq_refl E Hn) as Hs.
  unfold semcn in Hs. simpl etag in Hs.
  rewrite semc_retag, <- Hs. apply (semc_ext s H). simpl eref. intros l Hl. unfold upd.
  destruct (Nat.eqb_spec l (nlevel nd)) as [->|Hne].
  - rewrite choice_of_updb_same. unfold i. destruct b; reflexivity.
  - apply choice_of_updb_other. exact Hne.
Qed.

Lemma Fc_T : forall t tag a, Fc (RT t) tag a = negb tag.
Proof. intros t tag a. unfold Fc, fun_bcdd. rewrite (semc_T s _ _ _ t) by reflexivity. reflexivity. Qed.

Lemma bcdd_halving : forall vars, halving s vars (bcdd_scheme exact_ops (2 ^ N.of_nat vars)%N) Fc.
Proof.
  intros vars. constructor.
  - reflexivity.
  - intros t tag _. exists (negb tag). split; [destruct tag; reflexivity | apply Fc_T].
  - exact Fc_indep.
  - exact Fc_child.
Qed.

End SatBcdd.

Lemma total_node_c : forall s id tag nd e0 e1, WF s ->
  find_node s id = Some nd -> nchildren nd = [e0; e1] ->
  (count_levels (nlevels s) (Fc s (eref e0) (xorb tag (etag e0))) +
   count_levels (nlevels s) (Fc s (eref e1) (xorb tag (etag e1))) =
   2 * count_levels (nlevels s) (Fc s (RN id) tag))%N.
Proof. intros s id tag nd e0 e1 H. exact (count_node s 0 _ _ H (bcdd_halving s H 0) id tag nd e0 e1). Qed.

Theorem sat_bcdd_correct : forall s vars e, WF s -> s_kind s = KBcdd -> nlevels s <= vars ->
  ref_ok s (eref e) ->
  sat_bcdd s (S (nlevels s)) vars e =
  Some (2 ^ N.of_nat (vars - nlevels s) * count_levels (nlevels s) (fun_bcdd s e))%N.
Proof.
  intros s vars e H Hk Hv Hok.
  pose proof (halving_main s vars _ _ H (bcdd_halving s H vars) (bcdd_binary s Hk) Hv
                (S (nlevels s)) (eref e) (etag e) Hok ltac:(lia)) as Hm.
  unfold Fc in Hm. rewrite edge_eta in Hm. exact Hm.
Qed.

(** every halving of the BCDD recursion is exact: [a], [b] are the values of
    the two cofactors of the edge (id, tag) *)
Theorem sat_bcdd_halving_exact : forall s vars id tag nd e0 e1 a b,
  WF s -> s_kind s = KBcdd -> nlevels s <= vars ->
  find_node s id = Some nd -> nchildren nd = [e0; e1] ->
  sat_bcdd s (S (nlevels s)) vars (mkEdge (eref e0) (xorb tag (etag e0))) = Some a ->
  sat_bcdd s (S (nlevels s)) vars (mkEdge (eref e1) (xorb tag (etag e1))) = Some b ->
  ((a + b) mod 2 = 0 /\ sat_bcdd s (S (nlevels s)) vars (mkEdge (RN id) tag) = Some ((a + b) / 2) /\
   2 * ((a + b) / 2) = a + b)%N.
Proof.
  intros s vars id tag nd e0 e1 a b H Hk Hv E Hc Ha Hb.
  destruct (halving_node s vars _ _ H (bcdd_halving s H vars) (bcdd_binary s Hk) Hv
              _ id tag nd e0 e1 a b E Hc Ha Hb) as (Hm & Hq & Hd).
  split; [exact Hm|]. split; [|exact Hd]. rewrite Hq.
  apply sat_bcdd_correct; try assumption. exists nd. exact E.
Qed.

Example ex_sat_bcdd_ok : wf_full_b ex_sat_bcdd = true.
Proof. vm_compute. reflexivity. Qed.

Example ex_sat_bcdd_count :
  sat_bcdd ex_sat_bcdd 4 3 (mkEdge (RN 4) false) = Some 5%N /\
  sat_bcdd ex_sat_bcdd 4 3 (mkEdge (RN 4) true) = Some 3%N /\
  sat_bcdd ex_sat_bcdd 4 4 (mkEdge (RN 4) false) = Some 10%N /\
  count_levels 3 (fun_bcdd ex_sat_bcdd (mkEdge (RN 4) false)) = 5%N /\
  count_levels 3 (fun_bcdd ex_sat_bcdd (mkEdge (RN 4) true)) = 3%N.
Proof. vm_compute. repeat split; reflexivity. Qed.

(* cache keys carry the tag: node 2 is cached once per polarity *)
Example ex_sat_bcdd_cached :
  match sat_bcdd_c ex_sat_bcdd 4 3 false (mkEdge (RN 4) true) (PositiveMap.empty N) with
  | Some (v, m) => v = 3%N /\ PositiveMap.elements m = [(5%positive, 4%N)]
  | None => False
  end.
Proof. vm_compute. split; reflexivity. Qed.

(** ** ZBDD *)

From OxiVerif Require Import DD.CanonZbdd.

Lemma all_lo_S : forall c from k,
  all_lo c from (S k) = Nat.eqb (c from) 1 && all_lo c (S from) k.
Proof. reflexivity. Qed.

Section SatZbdd.
Variable s : snap.
Hypothesis H : WF s.
Hypothesis Hkind : s_kind s = KZbdd.

Let n := nlevels s.

Lemma zbdd_binary : binary (s_kind s).
Proof. unfold binary. rewrite Hkind. discriminate. Qed.

(** the function of [r] seen from level [l] *)
Definition Fz (l : nat) (r : ref) : lasg -> bool :=
  fun a => opt_true (semz s (S n) l r (choice_of a)).

Lemma paths_T : forall f t, paths_zbdd s f (RT t) =
  match term_val s t with
  | Some v => Some (if N.eqb v 1 then 1 else 0)%N
  | None => None
  end.
Proof. intros. unfold paths_zbdd. rewrite walk_T. reflexivity. Qed.

(** the recursion equation: then + else *)
Lemma paths_node : forall f id nd e0 e1,
  find_node s id = Some nd -> nchildren nd = [e0; e1] ->
  paths_zbdd s (S f) (RN id) =
  match paths_zbdd s f (eref e0), paths_zbdd s f (eref e1) with
  | Some a, Some b => Some (a + b)%N
  | _, _ => None
  end.
Proof.
  intros f id nd e0 e1 E Hc. unfold paths_zbdd.
  rewrite (walk_node _ s f id false nd e0 e1 E Hc). reflexivity.
Qed.

Lemma Fz_indep : forall l r i, i < l -> indep (Fz l r) i.
Proof.
  intros l r i Hi a b. unfold Fz. f_equal. apply semz_ext. intros x Hx.
  apply choice_of_updb_other. lia.
Qed.

(** a level skipped in front of a reference must be false *)
Lemma Fz_lo : forall l r a, ref_ok s r -> l < rlevel s r ->
  Fz l r a = negb (a l) && Fz (S l) r a.
Proof.
  intros l r a Hok Hl. unfold Fz. destruct r as [t|id].
  - destruct Hok as [v Ev]. rewrite !semz_T, Ev. simpl in Hl. fold n in Hl. fold n.
    replace (n - l) with (S (n - S l)) by lia. rewrite all_lo_S.
    unfold choice_of at 1. simpl opt_true.
    destruct (a l); simpl; destruct (N.eqb v 1); reflexivity.
  - destruct Hok as [nd E]. rewrite !semz_S, E. rewrite (rlevel_node s id nd E) in Hl.
    destruct (Nat.ltb_spec (nlevel nd) l) as [X|_]; [lia|].
    destruct (Nat.ltb_spec (nlevel nd) (S l)) as [X|_]; [lia|].
    replace (nlevel nd - l) with (S (nlevel nd - S l)) by lia. rewrite all_lo_S.
    unfold choice_of at 1. destruct (a l); simpl; reflexivity.
Qed.

Definition Zc (l : nat) (r : ref) : N := cnt (n - l) l (Fz l r).

Lemma Zc_step : forall l r, ref_ok s r -> l < rlevel s r -> Zc l r = Zc (S l) r.
Proof.
  intros l r Hok Hl. pose proof (rlevel_le s H r) as Hle. fold n in Hle.
  unfold Zc. replace (n - l) with (S (n - S l)) by lia.
  apply cnt_lo; [apply Fz_indep; lia | intros a; apply Fz_lo; assumption].
Qed.

Lemma Zc_lower : forall d l r, ref_ok s r -> l + d = rlevel s r -> Zc l r = Zc (rlevel s r) r.
Proof.
  induction d as [|d IH]; intros l r Hok Hl.
  - replace l with (rlevel s r) by lia. reflexivity.
  - rewrite (Zc_step l r Hok) by lia. apply IH; [exact Hok | lia].
Qed.

Lemma Fz_child : forall id nd e0 e1 a b,
  find_node s id = Some nd -> nchildren nd = [e0; e1] ->
  Fz (nlevel nd) (RN id) (updb a (nlevel nd) b) = Fz (S (nlevel nd)) (eref (if b then e0 else e1)) a.
Proof.
  intros id nd e0 e1 a b E Hc. unfold Fz. f_equal.
  set (x := if b then e0 else e1).
  assert (Hn : nth_error (nchildren nd) (choice_of (updb a (nlevel nd) b) (nlevel nd)) = Some x).
  { rewrite choice_of_updb_same, Hc. unfold x. destruct b; reflexivity. }
  pose proof (node_semz s H id nd x (nlevel nd) _ E Hn (le_n _)) as Hs.
  rewrite Nat.sub_diag in Hs. specialize (Hs eq_refl). unfold semzn in Hs. fold n in Hs.
  rewrite Hs. apply semz_ext. intros l Hl. apply choice_of_updb_other. lia.
Qed.

Lemma Zc_node : forall id nd e0 e1, find_node s id = Some nd -> nchildren nd = [e0; e1] ->
  (Zc (nlevel nd) (RN id) = Zc (S (nlevel nd)) (eref e0) + Zc (S (nlevel nd)) (eref e1))%N.
Proof.
  intros id nd e0 e1 E Hc. pose proof (wf_level s H id nd E) as Hl. fold n in Hl.
  unfold Zc. replace (n - nlevel nd) with (S (n - S (nlevel nd))) by lia.
  change (cnt (S (n - S (nlevel nd))) (nlevel nd) (Fz (nlevel nd) (RN id))) with
    (cnt (n - S (nlevel nd)) (S (nlevel nd)) (fun a => Fz (nlevel nd) (RN id) (updb a (nlevel nd) true)) +
     cnt (n - S (nlevel nd)) (S (nlevel nd)) (fun a => Fz (nlevel nd) (RN id) (updb a (nlevel nd) false)))%N.
  rewrite (cnt_ext _ _ (fun a => Fz (nlevel nd) (RN id) (updb a (nlevel nd) true))
             (Fz (S (nlevel nd)) (eref e0)))
    by (intros a; apply (Fz_child id nd e0 e1 a true E Hc)).
  rewrite (cnt_ext _ _ (fun a => Fz (nlevel nd) (RN id) (updb a (nlevel nd) false))
             (Fz (S (nlevel nd)) (eref e1)))
    by (intros a; apply (Fz_child id nd e0 e1 a false E Hc)).
  reflexivity.
Qed.

Lemma paths_main : forall f r, ref_ok s r -> n - rlevel s r < f ->
  paths_zbdd s f r = Some (Zc (rlevel s r) r).
Proof.
  induction f as [|f IH]; intros r Hok Hf; [lia|].
  destruct r as [t|id].
  - rewrite paths_T. destruct Hok as [v Ev]. rewrite Ev. f_equal.
    unfold Zc. simpl rlevel. fold n. rewrite Nat.sub_diag. simpl cnt.
    unfold Fz. rewrite semz_T, Ev. fold n. rewrite Nat.sub_diag. simpl.
    rewrite andb_true_r. reflexivity.
  - destruct Hok as [nd E]. rewrite (rlevel_node s id nd E) in *.
    destruct (two_children s id nd H zbdd_binary E) as [e0 [e1 Hc]].
    destruct (node_children_ok s id nd e0 e1 H E Hc) as [[O0 L0] [O1 L1]].
    pose proof (rlevel_le s H (eref e0)) as B0. pose proof (rlevel_le s H (eref e1)) as B1.
    fold n in B0, B1.
    rewrite (paths_node f id nd e0 e1 E Hc).
    rewrite (IH (eref e0) O0), (IH (eref e1) O1) by lia. f_equal.
    rewrite (Zc_node id nd e0 e1 E Hc).
    rewrite (Zc_lower (rlevel s (eref e0) - S (nlevel nd)) (S (nlevel nd)) (eref e0) O0) by lia.
    rewrite (Zc_lower (rlevel s (eref e1) - S (nlevel nd)) (S (nlevel nd)) (eref e1) O1) by lia.
    reflexivity.
Qed.

(** the number of paths to Base is the number of satisfying level-assignments *)
Theorem paths_zbdd_correct_sec : forall r, ref_ok s r ->
  paths_zbdd s (S n) r = Some (count_levels n (fun_zbdd s r)).
Proof.
  intros r Hok. rewrite paths_main by (auto; lia). f_equal.
  rewrite <- (Zc_lower (rlevel s r) 0 r Hok) by lia.
  unfold Zc, count_levels. rewrite Nat.sub_0_r. reflexivity.
Qed.

End SatZbdd.

Theorem paths_zbdd_correct : forall s r, WF s -> s_kind s = KZbdd -> ref_ok s r ->
  paths_zbdd s (S (nlevels s)) r = Some (count_levels (nlevels s) (fun_zbdd s r)).
Proof. intros s r H Hk Hok. apply paths_zbdd_correct_sec; assumption. Qed.

(** [sat_count(vars)] on ZBDDs, [vars >= num_levels]: every additional
    variable doubles the count *)
Theorem sat_zbdd_correct : forall s vars r, WF s -> s_kind s = KZbdd -> nlevels s <= vars ->
  ref_ok s r ->
  sat_zbdd s (S (nlevels s)) vars r =
  Some (2 ^ N.of_nat (vars - nlevels s) * count_levels (nlevels s) (fun_zbdd s r))%N.
Proof.
  intros s vars r H Hk Hv Hok. unfold sat_zbdd. rewrite (paths_zbdd_correct s r H Hk Hok).
  simpl option_map. unfold zbdd_shift.
  destruct (Nat.leb_spec (nlevels s) vars) as [_|X]; [|lia]. simpl n_shl. f_equal. lia.
Qed.

Example ex_sat_zbdd_ok : wf_full_b ex_sat_zbdd = true.
Proof. vm_compute. reflexivity. Qed.

Example ex_sat_zbdd_count :
  paths_zbdd ex_sat_zbdd 4 (RN 6) = Some 5%N /\
  sat_zbdd ex_sat_zbdd 4 3 (RN 6) = Some 5%N /\
  sat_zbdd ex_sat_zbdd 4 4 (RN 6) = Some 10%N /\
  count_levels 3 (fun_zbdd ex_sat_zbdd (RN 6)) = 5%N.
Proof. vm_compute. repeat split; reflexivity. Qed.

(** * Part D: saturating arithmetic ([Saturating<u64>], [Saturating<u128>]) *)

From OxiVerif Require Num.NatBase.

Section Saturating.
Variable w : N.
Hypothesis Hw : (2 <= w)%N.

Let MAX := sat_max w.

(** [<<] of [Saturating<uW>]: the product if it fits, the marker otherwise *)
Definition sat_fit (x : N) : N := if (x <? 2 ^ w)%N then x else sat_max w.

Lemma sat_shl_spec : forall x k, (x < 2 ^ w)%N ->
  n_shl (sat_ops w) x k = sat_fit (x * 2 ^ N.of_nat k)%N.
Proof.
  intros x k Hx. simpl n_shl. unfold sat_fit. destruct (N.eqb_spec x 0) as [->|Hnz].
  - rewrite N.mul_0_l. pose proof (pow2_pos w). destruct (N.ltb_spec 0 (2 ^ w)); [reflexivity | lia].
  - assert (Hs : (N.size x <= w)%N) by (apply NatBase.size_le_iff; exact Hx).
    pose proof (NatBase.size_mul_p2 x (N.of_nat k) Hnz) as Sm.
    pose proof (NatBase.size_le_iff (x * 2 ^ N.of_nat k) w) as Hiff.
    destruct (N.ltb_spec (w - N.size x) (N.of_nat k)) as [Hov|Hfit];
      destruct (N.ltb_spec (x * 2 ^ N.of_nat k) (2 ^ w)) as [Hlt|Hge]; try reflexivity.
    + apply Hiff in Hlt. lia.
    + apply N.mod_small. exact Hlt.
    + exfalso. assert (Hc : (N.size (x * 2 ^ N.of_nat k) <= w)%N) by lia. apply Hiff in Hc. lia.
Qed.

Lemma pow_w_ge4 : (4 <= 2 ^ w)%N.
Proof. change 4%N with (2 ^ 2)%N. apply N.pow_le_mono_r; [discriminate | exact Hw]. Qed.

Lemma max_ge3 : (3 <= MAX)%N.
Proof. unfold MAX, sat_max. pose proof pow_w_ge4. lia. Qed.

Lemma saturate_0 : forall vars, saturate w vars 0 = 0%N.
Proof. intros vars. unfold saturate. destruct (N.of_nat vars <? w)%N; reflexivity. Qed.

(** [1 << vars] in the saturating type *)
Lemma shl_one : forall vars, n_shl (sat_ops w) 1%N vars = saturate w vars (2 ^ N.of_nat vars)%N.
Proof.
  intros vars. pose proof pow_w_ge4 as H4. rewrite sat_shl_spec by lia. unfold sat_fit, saturate. rewrite N.mul_1_l.
  destruct (N.ltb_spec (N.of_nat vars) w) as [Hlt|Hge].
  - assert (2 ^ N.of_nat vars < 2 ^ w)%N by (apply N.pow_lt_mono_r; [reflexivity | exact Hlt]).
    destruct (N.ltb_spec (2 ^ N.of_nat vars) (2 ^ w)); [reflexivity | lia].
  - assert (2 ^ w <= 2 ^ N.of_nat vars)%N by (apply N.pow_le_mono_r; [discriminate | exact Hge]).
    pose proof (pow2_pos (N.of_nat vars)).
    destruct (N.ltb_spec (2 ^ N.of_nat vars) (2 ^ w)); [lia|].
    destruct (N.eqb_spec (2 ^ N.of_nat vars) 0); [lia | reflexivity].
Qed.

(** one step of the recursion: the saturating combination of the (saturated)
    children values is the saturated exact value *)
Lemma comb_saturate : forall vars X a b, (a + b = X * 2)%N -> (X + 1 <= 2 ^ N.of_nat vars)%N ->
  n_shr (sat_ops w) (n_add (sat_ops w) (saturate w vars a) (saturate w vars b)) 1 =
  saturate w vars ((a + b) / 2)%N.
Proof.
  intros vars X a b Hab HX. rewrite Hab, N.div_mul by discriminate.
  pose proof max_ge3 as Hm. pose proof pow_w_ge4 as H4.
  simpl n_shr. simpl n_add. fold MAX. unfold saturate. fold MAX.
  destruct (N.ltb_spec (N.of_nat vars) w) as [Hlt|Hge].
  - assert (Hp : (2 * 2 ^ N.of_nat vars <= 2 ^ w)%N).
    { rewrite <- N.pow_succ_r'. apply N.pow_le_mono_r; [discriminate | lia]. }
    assert (Hmx : (MAX = 2 ^ w - 1)%N) by reflexivity.
    rewrite N.min_l by lia.
    destruct (N.eqb_spec (a + b) MAX) as [Heq|_]; [lia|].
    change (2 ^ N.of_nat 1)%N with 2%N. rewrite Hab. apply N.div_mul. discriminate.
  - destruct (N.eqb_spec a 0) as [->|Ha]; destruct (N.eqb_spec b 0) as [->|Hb].
    + assert (X = 0%N) by lia. subst X. rewrite N.min_l by lia.
      destruct (N.eqb_spec (0 + 0) MAX) as [Heq|_]; [lia|]. reflexivity.
    + rewrite N.min_r by lia. rewrite N.eqb_refl.
      destruct (N.eqb_spec X 0); [lia | reflexivity].
    + rewrite N.min_r by lia. rewrite N.eqb_refl.
      destruct (N.eqb_spec X 0); [lia | reflexivity].
    + rewrite N.min_r by lia. rewrite N.eqb_refl.
      destruct (N.eqb_spec X 0); [lia | reflexivity].
Qed.

Lemma halving_saturate : forall s vars sch F, WF s -> binary (s_kind s) -> nlevels s <= vars ->
  halving s vars sch F ->
  (forall id tag nd, find_node s id = Some nd ->
     (count_levels (nlevels s) (F (RN id) tag) + 1 <= 2 ^ N.of_nat (nlevels s))%N) ->
  forall f id tag nd e0 e1 a b, find_node s id = Some nd -> nchildren nd = [e0; e1] ->
  walk sch s f (eref e0) (sc_tag sch tag (etag e0)) = Some a ->
  walk sch s f (eref e1) (sc_tag sch tag (etag e1)) = Some b ->
  n_shr (sat_ops w) (n_add (sat_ops w) (saturate w vars a) (saturate w vars b)) 1 =
  saturate w vars ((a + b) / 2)%N.
Proof.
  intros s vars sch F H Hb Hv X Hnf f id tag nd e0 e1 a b E Hc Wa Wb.
  destruct (halving_node s vars sch F H X Hb Hv f id tag nd e0 e1 a b E Hc Wa Wb) as (_ & Hq & Hd).
  apply (comb_saturate vars ((a + b) / 2)%N); [lia|]. rewrite Hq.
  pose proof (Hnf id tag nd E). pose proof (pow2_pos (N.of_nat (vars - nlevels s))).
  rewrite <- (pow2_sub vars (nlevels s) Hv). nia.
Qed.

(** The BDD recursion run in [Saturating<uW>] returns the exact count as long
    as [2^vars] is representable ([vars < W]); otherwise it returns the
    out-of-range marker, except for the unsatisfiable function, whose count 0
    is exact in every type. *)
Theorem sat_bdd_saturating : forall s vars r, WF s -> s_kind s = KBdd -> nlevels s <= vars ->
  ref_ok s r ->
  sat_bdd_sat w s (S (nlevels s)) vars r =
  option_map (saturate w vars) (sat_bdd s (S (nlevels s)) vars r).
Proof.
  intros s vars r H Hk Hv Hok.
  pose proof (sat_bdd_correct s vars r H Hk Hv Hok) as Hex. rewrite Hex.
  pose proof (fun Hc => walk_sim_bdd exact_ops (sat_ops w) (fun a x => x = saturate w vars a) s
                (eq_sym (saturate_0 vars)) _ _ (shl_one vars) Hc _ _ _ Hex) as Hs.
  destruct Hs as [x [Wx ->]]; [|exact Wx].
  intros f id nd e0 e1 a0 a1 b0 b1 E Hc W0 W1 -> ->.
  exact (halving_saturate s vars _ _ H (bdd_binary s Hk) Hv (bdd_halving s H vars)
           (fun id _ => node_not_full s H Hk id) f id false nd e0 e1 a0 a1 E Hc W0 W1).
Qed.

Corollary sat_bdd_saturating_exact : forall s vars r, WF s -> s_kind s = KBdd ->
  nlevels s <= vars -> (N.of_nat vars < w)%N -> ref_ok s r ->
  sat_bdd_sat w s (S (nlevels s)) vars r =
  Some (2 ^ N.of_nat (vars - nlevels s) * count_levels (nlevels s) (fun_bdd s r))%N.
Proof.
  intros s vars r H Hk Hv Hlt Hok. rewrite (sat_bdd_saturating s vars r H Hk Hv Hok).
  rewrite (sat_bdd_correct s vars r H Hk Hv Hok). simpl. unfold saturate.
  destruct (N.ltb_spec (N.of_nat vars) w); [reflexivity | lia].
Qed.

(** ** ZBDD *)

(** ZBDD counts in [Saturating<uW>] (diagrams with fewer than [W] levels): the
    exact count if it is representable, the out-of-range marker otherwise *)
Theorem sat_zbdd_saturating : forall s vars r, WF s -> s_kind s = KZbdd ->
  nlevels s <= vars -> (N.of_nat (nlevels s) < w)%N -> ref_ok s r ->
  sat_zbdd_sat w s (S (nlevels s)) vars r =
  Some (sat_fit (2 ^ N.of_nat (vars - nlevels s) * count_levels (nlevels s) (fun_zbdd s r)))%N.
Proof.
  intros s vars r H Hk Hv Hlt Hok. unfold sat_zbdd_sat.
  assert (Hq : (2 ^ N.of_nat (nlevels s) < 2 ^ w)%N) by (apply N.pow_lt_mono_r; [reflexivity | exact Hlt]).
  pose proof (paths_zbdd_correct s r H Hk Hok) as Hex.
  (* no sum saturates: each is the path count of a node, at most [2^levels] *)
  pose proof (fun Hc => walk_sim_zbdd exact_ops (sat_ops w) (fun a x => x = a) s eq_refl eq_refl Hc _ _ _ Hex) as Hs.
  destruct Hs as [x [Wx ->]].
  - intros f id nd e0 e1 a0 a1 b0 b1 E Hc W0 W1 -> ->.
    destruct (walk_node_std _ s H f id false nd e0 e1 a0 a1 E Hc W0 W1) as (_ & _ & Sn).
    pose proof (paths_zbdd_correct s (RN id) H Hk (ex_intro _ nd E)) as Hn. unfold paths_zbdd in Hn.
    rewrite Hn in Sn. injection Sn as Hs. change (count_levels (nlevels s) (fun_zbdd s (RN id)) = (a0 + a1)%N) in Hs.
    change (N.min (a0 + a1) (sat_max w) = (a0 + a1)%N).
    apply N.min_l. pose proof (cnt_le (nlevels s) 0 (fun_zbdd s (RN id))) as Hle.
    fold (count_levels (nlevels s) (fun_zbdd s (RN id))) in Hle. unfold sat_max. lia.
  - rewrite Wx. simpl option_map. f_equal.
    unfold zbdd_shift. destruct (Nat.leb_spec (nlevels s) vars) as [_|X]; [|lia].
    pose proof (cnt_le (nlevels s) 0 (fun_zbdd s r)) as Hle. fold (count_levels (nlevels s) (fun_zbdd s r)) in Hle.
    rewrite sat_shl_spec by lia. f_equal. apply N.mul_comm.
Qed.

(** ... in particular exact while [2^vars] is representable *)
Theorem sat_zbdd_saturating_exact : forall s vars r, WF s -> s_kind s = KZbdd ->
  nlevels s <= vars -> (N.of_nat vars < w)%N -> ref_ok s r ->
  sat_zbdd_sat w s (S (nlevels s)) vars r =
  Some (2 ^ N.of_nat (vars - nlevels s) * count_levels (nlevels s) (fun_zbdd s r))%N.
Proof.
  intros s vars r H Hk Hv Hlt Hok. rewrite (sat_zbdd_saturating s vars r H Hk Hv ltac:(lia) Hok).
  f_equal. unfold sat_fit.
  pose proof (cnt_le (nlevels s) 0 (fun_zbdd s r)) as Hle. fold (count_levels (nlevels s) (fun_zbdd s r)) in Hle.
  assert (Hp : (2 ^ N.of_nat (vars - nlevels s) * 2 ^ N.of_nat (nlevels s) = 2 ^ N.of_nat vars)%N).
  { rewrite <- pow2_add. f_equal. f_equal. lia. }
  assert (Hq : (2 ^ N.of_nat vars < 2 ^ w)%N) by (apply N.pow_lt_mono_r; [reflexivity | exact Hlt]).
  pose proof (pow2_pos (N.of_nat (vars - nlevels s))).
  destruct (N.ltb_spec (2 ^ N.of_nat (vars - nlevels s) * count_levels (nlevels s) (fun_zbdd s r)) (2 ^ w));
    [reflexivity | nia].
Qed.

End Saturating.

(** The ZBDD version shifts the path count ([count << (vars - levels)]): the
    tautology over 3 levels (8 models) with [vars = 64] has 2^64 models, which
    [Saturating<u64>] reports as the marker; a single path with [vars = 64]
    (2^61 models) is still exact. *)
Definition ex_zbdd_taut : snap :=
  mkSnap KZbdd
    (PositiveMap.add 3%positive (mkNode 0 [xe (RN 2); xe (RN 2)] 0 1)
    (PositiveMap.add 2%positive (mkNode 1 [xe (RN 1); xe (RN 1)] 1 2)
    (PositiveMap.add 1%positive (mkNode 2 [xe (RT 1); xe (RT 1)] 2 2)
       (PositiveMap.empty node))))
    [(0%N, 0%N); (1%N, 1%N)]
    [0; 1; 2] [0; 1; 2]
    [(0%N, xe (RN 3))].

Example ex_zbdd_shl_saturates :
  wf_full_b ex_zbdd_taut = true /\
  sat_zbdd ex_zbdd_taut 4 64 (RN 3) = Some (2 ^ 64)%N /\
  sat_zbdd_sat 64 ex_zbdd_taut 4 64 (RN 3) = Some (sat_max 64) /\
  sat_zbdd_sat 64 ex_zbdd_taut 4 60 (RN 3) = Some (2 ^ 60)%N /\
  sat_u64 64 (2 ^ 64) = sat_max 64.
Proof. vm_compute. repeat split; reflexivity. Qed.

Example ex_sat_bdd_u64 :
  sat_bdd_sat 64 ex_sat_bdd 4 63 (RN 4) = Some (5 * 2 ^ 60)%N /\
  sat_bdd_sat 64 ex_sat_bdd 4 64 (RN 4) = Some (sat_max 64) /\
  sat_bdd_sat 64 ex_sat_bdd 4 64 (RT 0) = Some 0%N.
Proof. vm_compute. repeat split; reflexivity. Qed.
