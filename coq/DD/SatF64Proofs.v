(** * [sat_count::<F64>]: theorems (models: DD/SatCount.v, DD/SatCountF64.v, Num/F64Count.v)

    Part 1: the halving recursion of BDDs / BCDDs in [f64] ([Rel]: the float
    holds the exact value scaled by [2^-1021] resp. [2^0], or the run has
    overflowed, which needs [vars >= 2044]).
    Part 2: for diagrams with at most 53 levels [sat_count::<F64>(vars)]
    returns the correctly rounded exact count [f64_of_N (exact_count ...)] for
    EVERY [vars >= levels]: exactly the count while it is below [2^1024]
    ([sat_ref_f64_exact], e.g. all [vars <= 1023]), [+inf] from there on
    ([sat_ref_f64_overflow]); with the scale-down by [MIN_EXP] for
    [vars >= 1021]; BDD, BCDD, ZBDD; and for whole histories on a reused cache
    ([run_queries_f64], from the number-type independent
    [run_queries_correct]).
    Part 3: without the bound on the levels the run is the evaluation of the
    same expression tree over the reals with Flocq's rounding [rnd64] after
    every operation ([walk_f64_bdd_rounded], [walk_f64_bcdd_rounded]).

    Part 2 is [sat_ref_sim] of DD/SatQueryProofs.v with the relations of
    Part 1.  Depends on Flocq's classical axioms (see
    Num/F64CountProofs.v). *)
From Coq Require Import List NArith ZArith PArith Bool Arith Lia Reals Lra FMapPositive.
From Flocq Require Import Core.Core IEEE754.Binary IEEE754.Bits.
From OxiVerif Require Import DD.Table DD.TableExtra DD.TableProofs DD.SatCount DD.SatCountProofs DD.SatQueryProofs.
From OxiVerif Require Import Num.F64Count Num.F64CountProofs DD.SatCountF64.
Import ListNotations.

Arguments N.add : simpl never.
Arguments N.sub : simpl never.
Arguments N.mul : simpl never.
Arguments N.div : simpl never.
Arguments N.modulo : simpl never.
Arguments N.pow : simpl never.

(** * Part 1: the halving recursion (BDD, BCDD) in [f64] *)

Local Open Scope Z_scope.

Lemma fops_zero : n_zero f64_ops = f64c_pos_zero.
Proof. vm_compute. reflexivity. Qed.

Lemma fops_one_rep : frep (n_one f64_ops) 1 0.
Proof. apply (of_N_small 1). change (2 ^ 53)%N with 9007199254740992%N. lia. Qed.

Lemma pow53 : forall n : nat, (n <= 53)%nat -> (2 ^ N.of_nat n <= 2 ^ 53)%N.
Proof. intros n H. apply N.pow_le_mono_r; lia. Qed.

(** The scale [1021] and the variable count are unary numbers in the model;
    the arithmetic below is done on their binary images ([lia] on a unary
    numeral of that size is slow). *)
Lemma leb_of_nat : forall a b : nat, Nat.leb a b = (N.of_nat a <=? N.of_nat b)%N.
Proof. intros a b. destruct (Nat.leb_spec a b), (N.leb_spec (N.of_nat a) (N.of_nat b)); try reflexivity; lia. Qed.

Lemma le_of_nat : forall a b : nat, (a <= b)%nat -> (N.of_nat a <= N.of_nat b)%N.
Proof. intros a b Hab. lia. Qed.

Lemma terminal_val_f64 : forall vars,
  terminal_val f64_ops (Nat.leb 1021 vars) vars =
  f64c_shl (n_one f64_ops) (if (1021 <=? N.of_nat vars)%N then N.of_nat vars - 1021 else N.of_nat vars)%N.
Proof.
  intros vars. rewrite (leb_of_nat 1021 vars). change (N.of_nat 1021) with 1021%N. unfold terminal_val.
  destruct (1021 <=? N.of_nat vars)%N; [|reflexivity].
  change (f64c_shl (n_one f64_ops) (N.of_nat (vars - 1021)) = f64c_shl (n_one f64_ops) (N.of_nat vars - N.of_nat 1021)%N).
  rewrite Nat2N.inj_sub. reflexivity.
Qed.

Lemma rescale_f64 : forall vars x,
  rescale f64_ops (Nat.leb 1021 vars) x = if (1021 <=? N.of_nat vars)%N then f64c_shl x 1021 else x.
Proof. intros vars x. rewrite (leb_of_nat 1021 vars). reflexivity. Qed.

Section Halving.
Variable V : N.

Let sc : bool := (1021 <=? V)%N.
Let sh : Z := if sc then 1021 else 0.

(** [x] holds the exact value [v] of the recursion, scaled by [2^-sh]; or the
    run has overflowed, which only happens for [vars >= 2044], where every
    non-zero count is beyond the range of [f64] *)
Definition Rel (v : N) (x : binary64) : Prop :=
  frep x v (- sh) \/ (x = f64c_pos_inf /\ v <> 0%N /\ (2044 <= V)%N).

Lemma sh_cases : (sc = true /\ sh = 1021 /\ (1021 <= V)%N) \/ (sc = false /\ sh = 0 /\ (V < 1021)%N).
Proof. unfold sh, sc. destruct (N.leb_spec 1021 V); [left | right]; repeat split; assumption. Qed.

Lemma Rel_fin_or_inf : forall v x, Rel v x -> is_finite 53 1024 x = true \/ x = f64c_pos_inf.
Proof. intros v x [(F & _)|(E & _)]; [left | right]; assumption. Qed.

Lemma rel_zero : Rel 0 (n_zero f64_ops).
Proof. left. rewrite fops_zero. apply frep_pos_zero. Qed.

Lemma rel_terminal : Rel (2 ^ V) (f64c_shl (n_one f64_ops) (if sc then V - 1021 else V)%N).
Proof.
  set (k := (if sc then V - 1021 else V)%N).
  assert (Hk : Z.of_N k = Z.of_N V - sh).
  { unfold k. destruct sh_cases as [(-> & -> & H)|(-> & -> & H)]; lia. }
  rewrite (shl_of_N _ 1 0 k k fops_one_rep); [|change (2 ^ 53)%N with 9007199254740992%N; lia | lia | lia | lia].
  destruct (N.lt_ge_cases (1 * 2 ^ k) (2 ^ 1024)) as [Hlt|Hge].
  - left. apply (frep_ext _ 1 (Z.of_N k)).
    + apply of_N_rep; [change (2 ^ 53)%N with 9007199254740992%N; lia | exact Hlt].
    + rewrite <- (N.mul_1_l (2 ^ V)), dy_shift. f_equal; lia.
  - right. rewrite of_N_ovf by (try exact Hge; change (2 ^ 53)%N with 9007199254740992%N; lia).
    split; [reflexivity|]. split; [apply N.pow_nonzero; discriminate|].
    rewrite N.mul_1_l in Hge. apply N.pow_le_mono_r_iff in Hge; [|reflexivity].
    destruct sh_cases as [(_ & E & H1)|(_ & E & H1)]; rewrite E in Hk; lia.
Qed.

Variable n : N.
Hypothesis Hn : (n <= V)%N.
Hypothesis Hn53 : (n <= 53)%N.

Let J : N := (V - n)%N.

Lemma rel_halve : forall a0 a1 c x0 x1, Rel a0 x0 -> Rel a1 x1 ->
  ((a0 + a1) / 2 = 2 ^ J * c)%N -> (2 * ((a0 + a1) / 2) = a0 + a1)%N -> (c <= 2 ^ n)%N ->
  Rel ((a0 + a1) / 2) (f64c_shr (f64c_add x0 x1) 1).
Proof.
  intros a0 a1 c x0 x1 R0 R1 Hq Hd Hc.
  assert (Hdiv : ((a0 + a1) / 2 = c * 2 ^ J)%N) by lia.
  assert (Hs : (a0 + a1 = 2 * (c * 2 ^ J))%N) by lia. clear Hq Hd.
  assert (Hc53 : (c <= 2 ^ 53)%N).
  { eapply N.le_trans; [exact Hc|]. apply N.pow_le_mono_r; [discriminate | exact Hn53]. }
  assert (Hsh : 0 <= sh <= 1021) by (destruct sh_cases as [(_ & -> & _)|(_ & -> & _)]; lia).
  destruct R0 as [F0|(E0 & N0 & V0)].
  - destruct R1 as [F1|(E1 & N1 & V1)].
    + assert (E : dy (a0 + a1) (- sh) = dy c (Z.of_N J + 1 - sh)).
      { rewrite Hs. replace (2 * (c * 2 ^ J))%N with (c * 2 ^ (J + 1))%N.
        - rewrite dy_shift. f_equal; lia.
        - rewrite N.pow_add_r. change (2 ^ 1)%N with 2%N. lia. }
      destruct (frep_add_as x0 x1 a0 a1 (- sh) c (Z.of_N J + 1 - sh) F0 F1 E Hc53 ltac:(lia)) as [Hfin Hovf].
      destruct (Rlt_le_dec (dy c (Z.of_N J + 1 - sh)) (bpow radix2 1024)) as [Hlt|Hge].
      * left. specialize (Hfin Hlt).
        pose proof (frep_shr _ c _ 1 Hfin Hc53 ltac:(lia) ltac:(lia)) as Hr.
        apply (frep_ext _ _ _ _ _ Hr). rewrite Hdiv, dy_shift. f_equal; lia.
      * right. rewrite (Hovf Hge), shr_inf by lia. split; [reflexivity|].
        assert (Hcnz : c <> 0%N).
        { intros ->. rewrite dy_0 in Hge. pose proof (bpow_gt_0 radix2 1024). lra. }
        split.
        -- rewrite Hdiv. pose proof (N.pow_nonzero 2 J ltac:(discriminate)). nia.
        -- pose proof (dy_ge_exp c n _ 1024 Hc Hge) as Hb.
           unfold J in Hb. destruct sh_cases as [(_ & E1 & H1)|(_ & E1 & H1)]; rewrite E1 in Hb; lia.
    + right. subst x1. rewrite add_inf_r by (left; apply F0). rewrite shr_inf by lia.
      split; [reflexivity|]. split; [|exact V1]. rewrite Hdiv.
      intros Hz. rewrite Hz in Hs. lia.
  - right. subst x0. rewrite add_inf_l by (apply (Rel_fin_or_inf a1); exact R1). rewrite shr_inf by lia.
    split; [reflexivity|]. split; [|exact V0]. rewrite Hdiv.
    intros Hz. rewrite Hz in Hs. lia.
Qed.

Lemma rel_finish : forall c x, Rel (2 ^ J * c) x -> (c <= 2 ^ n)%N ->
  (if sc then f64c_shl x 1021 else x) = f64_of_N (2 ^ J * c).
Proof.
  intros c x Rv Hc. rewrite (N.mul_comm (2 ^ J) c) in *.
  assert (Hc53 : (c <= 2 ^ 53)%N).
  { eapply N.le_trans; [exact Hc|]. apply N.pow_le_mono_r; [discriminate | exact Hn53]. }
  destruct Rv as [Fx|(E & Nz & V2)].
  - assert (Fc : frep x c (Z.of_N J - sh)).
    { apply (frep_ext _ _ _ _ _ Fx). rewrite dy_shift. f_equal; lia. }
    destruct sh_cases as [(E1 & E2 & H1)|(E1 & E2 & H1)]; rewrite E1; rewrite E2 in Fc.
    + apply (shl_of_N x c (Z.of_N J - 1021) 1021 J Fc Hc53); unfold J; lia.
    + replace (Z.of_N J - 0) with (Z.of_N J) in Fc by lia. apply rep_of_N; assumption.
  - subst x. assert (Esc : sc = true) by (unfold sc; apply N.leb_le; lia). rewrite Esc, shl_inf.
    symmetry. apply of_N_ovf; [exact Hc53|].
    assert (c <> 0%N) by (intros ->; apply Nz; lia).
    assert (2 ^ 1024 <= 2 ^ J)%N by (apply N.pow_le_mono_r; unfold J; lia). nia.
Qed.

End Halving.

(** * Part 2: [sat_count::<F64>] returns the correctly rounded exact count *)

Local Close Scope Z_scope.

Lemma scaled_bdd_f64 : forall vars, scaled_bdd f64_ops vars = Nat.leb 1021 vars.
Proof. intros. reflexivity. Qed.

Lemma scaled_bcdd_f64 : forall vars, scaled_bcdd f64_ops vars = Nat.leb 1021 vars.
Proof. intros. reflexivity. Qed.

(** the relations of [sat_ref_sim]: [Rel] for the halving kinds, the exactly
    held path count for ZBDDs (at most [2^levels <= 2^53], every sum is exact) *)
Theorem sat_ref_f64 : forall s vars e, WF s -> counting_kind (s_kind s) -> nlevels s <= vars ->
  nlevels s <= 53 -> ref_ok s (eref e) ->
  sat_ref f64_ops s vars e = Some (f64_of_N (exact_count s vars e)).
Proof.
  intros s vars e H Hk Hv H53 Hok.
  set (V := N.of_nat vars). set (n := N.of_nat (nlevels s)).
  pose proof (le_of_nat _ _ Hv : (n <= V)%N) as Hn. pose proof (le_of_nat _ 53 H53 : (n <= 53)%N) as Hn53.
  assert (Hsc : forall sc, sc = scaled_bdd f64_ops vars \/ sc = scaled_bcdd f64_ops vars -> sc = Nat.leb 1021 vars)
    by (intros sc [->| ->]; reflexivity).
  destruct (sat_ref_sim f64_ops s vars H Hv (Rel V) (fun v x => frep x v 0) (fun v x => x = f64_of_N v))
    with (e := e) as [x [E ->]]; try assumption.
  - apply rel_zero.
  - intros sc S. rewrite (Hsc sc S), terminal_val_f64. apply rel_terminal.
  - intros a0 a1 x0 x1 c R0 R1 _ Hq Hd Hc. rewrite Nat2N.inj_sub in Hq.
    exact (rel_halve V n Hn Hn53 a0 a1 c x0 x1 R0 R1 Hq Hd Hc).
  - intros sc c x S Rx Hc. rewrite (Hsc sc S), rescale_f64, Nat2N.inj_sub in *.
    exact (rel_finish V n Hn Hn53 c x Rx Hc).
  - exact (of_N_small 0 ltac:(discriminate)).
  - exact fops_one_rep.
  - intros a0 a1 x0 x1 R0 R1 Hle.
    assert (Hle53 : (a0 + a1 <= 2 ^ 53)%N) by (eapply N.le_trans; [exact Hle | apply pow53; exact H53]).
    apply frep_add; try assumption; [lia|].
    rewrite dy_int. change 1024%Z with (Z.of_N 1024). apply IZR_N_lt_bpow.
    eapply N.le_lt_trans; [exact Hle53|]. apply N.pow_lt_mono_r; lia.
  - intros c x Rx Hc. rewrite N.mul_comm.
    apply (shl_of_N x _ 0%Z (N.of_nat (vars - nlevels s)) (N.of_nat (vars - nlevels s)) Rx); try lia.
    eapply N.le_trans; [exact Hc | apply pow53; exact H53].
Qed.

Lemma exact_count_form : forall s vars e, exists c,
  (exact_count s vars e = c * 2 ^ N.of_nat (vars - nlevels s) /\ c <= 2 ^ N.of_nat (nlevels s))%N.
Proof. intros s vars e. unfold exact_count. eexists. split; [apply N.mul_comm | apply cnt_le]. Qed.

(** the result is exact (an [f64] holding the count) whenever the count is below
    [2^1024], in particular for every [vars <= 1023]; and [+inf] otherwise *)
Theorem sat_ref_f64_exact : forall s vars e, WF s -> counting_kind (s_kind s) -> nlevels s <= vars ->
  nlevels s <= 53 -> ref_ok s (eref e) -> (exact_count s vars e < 2 ^ 1024)%N ->
  exists x, sat_ref f64_ops s vars e = Some x /\ is_finite 53 1024 x = true /\
            B2R 53 1024 x = IZR (Z.of_N (exact_count s vars e)).
Proof.
  intros s vars e H Hk Hv H53 Hok Hlt. eexists. split; [apply sat_ref_f64; assumption|].
  destruct (exact_count_form s vars e) as [c [Ec Hc]]. rewrite Ec in *.
  apply f64_of_N_exact; [|exact Hlt]. eapply N.le_trans; [exact Hc | apply pow53; exact H53].
Qed.

Corollary sat_ref_f64_exact_vars : forall s vars e, WF s -> counting_kind (s_kind s) -> nlevels s <= vars ->
  nlevels s <= 53 -> ref_ok s (eref e) -> vars <= 1023 ->
  exists x, sat_ref f64_ops s vars e = Some x /\ is_finite 53 1024 x = true /\
            B2R 53 1024 x = IZR (Z.of_N (exact_count s vars e)).
Proof.
  intros s vars e H Hk Hv H53 Hok Hs. apply sat_ref_f64_exact; try assumption.
  destruct (exact_count_form s vars e) as [c [-> Hc]].
  eapply N.le_lt_trans; [apply N.mul_le_mono_r; exact Hc|]. rewrite N.mul_comm, (pow2_sub vars (nlevels s) Hv).
  apply N.pow_lt_mono_r; [reflexivity|]. exact (proj2 (N.lt_succ_r _ 1023) (le_of_nat vars 1023 Hs)).
Qed.

Theorem sat_ref_f64_overflow : forall s vars e, WF s -> counting_kind (s_kind s) -> nlevels s <= vars ->
  nlevels s <= 53 -> ref_ok s (eref e) -> (2 ^ 1024 <= exact_count s vars e)%N ->
  sat_ref f64_ops s vars e = Some f64c_pos_inf.
Proof.
  intros s vars e H Hk Hv H53 Hok Hge. rewrite (sat_ref_f64 s vars e H Hk Hv H53 Hok). f_equal.
  destruct (exact_count_form s vars e) as [c [Ec Hc]]. rewrite Ec in *.
  apply of_N_ovf; [|exact Hge]. eapply N.le_trans; [exact Hc | apply pow53; exact H53].
Qed.

(** ** histories with a reused cache *)

Fixpoint small_levels (qs : list query) : Prop :=
  match qs with
  | [] => True
  | q :: rest => nlevels (q_snap q) <= 53 /\ small_levels rest
  end.

Theorem run_queries_f64 : forall q qs,
  qok q -> hist_ok q qs -> counting (q :: qs) -> small_levels (q :: qs) ->
  exists c', run_queries f64_ops (@cache_default binary64) (q :: qs) =
             Some (map (fun q => f64_of_N (exact_count (q_snap q) (q_vars q) (q_edge q))) (q :: qs), c').
Proof.
  intros q qs Hq Hh Hc Hs. apply (run_queries_values f64_ops _ q qs Hq Hh).
  clear Hq Hh. revert Hc Hs. generalize (q :: qs). clear q qs.
  induction l as [|x l IH]; intros Hc Hs; [constructor|].
  destruct Hc as [Hk [Hv Hc]]. destruct Hs as [H53 Hs].
  constructor; [|exact (IH Hc Hs)]. intros [Hw [_ Hok]]. apply sat_ref_f64; assumption.
Qed.

(** * Part 3: beyond 53 levels -- the run is the evaluation of the same
      expression tree with every operation correctly rounded

    No bound on the number of levels and no well-formedness is needed here:
    the float run and the run over the reals with [rnd64] after every
    operation visit the same tree.  The terminal value is [2^k], [k <= 1022]
    (no intermediate overflow: all values stay in [[0, 2^k]]). *)

Local Open Scope R_scope.

Notation rnd64 := (round radix2 (FLT_exp (-1074) 53) ZnearestE).

(** [(a + b) >> 1] over the reals, rounded like the two float operations *)
Definition halveR (a b : R) : R := rnd64 (rnd64 (a + b) * bpow radix2 (-1)).

Definition bdd_schemeR (T : R) : scheme R :=
  mkScheme R
    (fun s t _ => match term_val s t with
                  | Some v => Some (if N.eqb v 1 then T else 0)
                  | None => None
                  end)
    (fun _ id => id) (fun _ _ => false) negb halveR.

Definition bcdd_schemeR (T : R) : scheme R :=
  mkScheme R (fun _ _ tag => Some (if tag then 0 else T))
    (fun tag id => if tag then xI id else xO id) xorb (fun _ => true) halveR.

Definition RelR (T : R) (a : R) (x : binary64) : Prop :=
  is_finite 53 1024 x = true /\ B2R 53 1024 x = a /\ 0 <= a <= T.

Lemma bpow_format : forall k : Z, (-1074 <= k)%Z -> generic_format radix2 (FLT_exp (-1074) 53) (bpow radix2 k).
Proof.
  intros k Hk. replace (bpow radix2 k) with (dy 1 k) by (unfold dy; simpl IZR; ring).
  apply dy_format; [discriminate | exact Hk].
Qed.

Lemma rnd_le_bpow : forall x (k : Z), (-1074 <= k)%Z -> x <= bpow radix2 k -> rnd64 x <= bpow radix2 k.
Proof.
  intros x k Hk Hx. apply round_le_generic; [apply (@FLT_exp_valid (-1074) 53 Hprec53) | apply valid_rnd_N | apply bpow_format; exact Hk | exact Hx].
Qed.

Lemma rnd_ge_0 : forall x, 0 <= x -> 0 <= rnd64 x.
Proof.
  intros x Hx. apply round_ge_generic; [apply (@FLT_exp_valid (-1074) 53 Hprec53) | apply valid_rnd_N | apply generic_format_0 | exact Hx].
Qed.

Lemma relR_halve : forall (k : N) a0 a1 x0 x1, (k <= 1022)%N ->
  RelR (bpow radix2 (Z.of_N k)) a0 x0 -> RelR (bpow radix2 (Z.of_N k)) a1 x1 ->
  RelR (bpow radix2 (Z.of_N k)) (halveR a0 a1) (f64c_shr (f64c_add x0 x1) 1).
Proof.
  intros k a0 a1 x0 x1 Hk (F0 & V0 & L0 & U0) (F1 & V1 & L1 & U1).
  set (T := bpow radix2 (Z.of_N k)) in *.
  assert (HT2 : T + T = bpow radix2 (Z.of_N k + 1)) by (rewrite bpow_plus; simpl (bpow radix2 1); unfold T; lra).
  assert (Hs0 : 0 <= rnd64 (a0 + a1)) by (apply rnd_ge_0; lra).
  assert (Hs1 : rnd64 (a0 + a1) <= bpow radix2 (Z.of_N k + 1)) by (apply rnd_le_bpow; [lia | lra]).
  assert (Hlt : Rabs (rnd64 (B2R 53 1024 x0 + B2R 53 1024 x1)) < bpow radix2 1024).
  { rewrite V0, V1, Rabs_pos_eq by exact Hs0. eapply Rle_lt_trans; [exact Hs1|]. apply bpow_lt. lia. }
  destruct (f64c_add_round x0 x1 F0 F1 Hlt) as [Fs Vs]. rewrite V0, V1 in Vs.
  destruct (f64c_shr_round (f64c_add x0 x1) 1 Fs ltac:(lia)) as [Fr Vr]. rewrite Vs in Vr.
  split; [exact Fr|]. split; [exact Vr|]. unfold halveR.
  assert (Hh : bpow radix2 (Z.of_N k + 1) * bpow radix2 (-1) = T).
  { rewrite <- bpow_plus. unfold T. f_equal. lia. }
  pose proof (bpow_gt_0 radix2 (-1)).
  split.
  - apply rnd_ge_0. apply Rmult_le_pos; lra.
  - apply rnd_le_bpow; [lia|]. fold T. rewrite <- Hh. apply Rmult_le_compat_r; lra.
Qed.

Lemma relR_terminal : forall k : N, (k <= 1022)%N ->
  RelR (bpow radix2 (Z.of_N k)) (bpow radix2 (Z.of_N k)) (f64c_shl (n_one f64_ops) k).
Proof.
  intros k Hk.
  assert (Hr : frep (f64c_shl (n_one f64_ops) k) 1 (0 + Z.of_N k)).
  { apply frep_shl; [exact fops_one_rep | discriminate | lia | lia |].
    unfold dy. simpl IZR. rewrite Rmult_1_l. apply bpow_lt. lia. }
  destruct Hr as (F & _ & V). split; [exact F|]. split.
  - rewrite V. unfold dy. simpl IZR. rewrite Rmult_1_l. f_equal.
  - pose proof (bpow_ge_0 radix2 (Z.of_N k)). lra.
Qed.

Lemma relR_zero : forall T, 0 <= T -> RelR T 0 (n_zero f64_ops).
Proof. intros T HT. rewrite fops_zero. split; [reflexivity|]. split; [reflexivity | lra]. Qed.

Theorem walk_f64_bdd_rounded : forall s (k : N) f r a, (k <= 1022)%N ->
  walk (bdd_schemeR (bpow radix2 (Z.of_N k))) s f r false = Some a ->
  exists x, walk (bdd_scheme f64_ops (f64c_shl (n_one f64_ops) k)) s f r false = Some x /\
            is_finite 53 1024 x = true /\ B2R 53 1024 x = a.
Proof.
  intros s k f r a Hk Hw.
  destruct (walk_sim (bdd_schemeR (bpow radix2 (Z.of_N k))) (bdd_scheme f64_ops (f64c_shl (n_one f64_ops) k))
              (RelR (bpow radix2 (Z.of_N k))) s) with (f := f) (r := r) (tag := false) (a := a)
    as [x [Wx (F & V & _)]]; [reflexivity | | | exact Hw | eauto].
  - intros t tag v. simpl. destruct (term_val s t) as [w|]; [|discriminate]. intros E. inversion E; subst v.
    eexists. split; [reflexivity|]. destruct (N.eqb w 1); [apply relR_terminal; exact Hk | apply relR_zero; apply bpow_ge_0].
  - intros f' id nd e0 e1 tag a0 a1 b0 b1 _ _ _ _ R0 R1. apply (relR_halve k); assumption.
Qed.

Theorem walk_f64_bcdd_rounded : forall s (k : N) f r tag a, (k <= 1022)%N ->
  walk (bcdd_schemeR (bpow radix2 (Z.of_N k))) s f r tag = Some a ->
  exists x, walk (bcdd_scheme f64_ops (f64c_shl (n_one f64_ops) k)) s f r tag = Some x /\
            is_finite 53 1024 x = true /\ B2R 53 1024 x = a.
Proof.
  intros s k f r tag a Hk Hw.
  destruct (walk_sim (bcdd_schemeR (bpow radix2 (Z.of_N k))) (bcdd_scheme f64_ops (f64c_shl (n_one f64_ops) k))
              (RelR (bpow radix2 (Z.of_N k))) s) with (f := f) (r := r) (tag := tag) (a := a)
    as [x [Wx (F & V & _)]]; [reflexivity | | | exact Hw | eauto].
  - intros t tg v. simpl. intros E. inversion E; subst v.
    eexists. split; [reflexivity|]. destruct tg; [apply relR_zero; apply bpow_ge_0 | apply relR_terminal; exact Hk].
  - intros f' id nd e0 e1 tg a0 a1 b0 b1 _ _ _ _ R0 R1. apply (relR_halve k); assumption.
Qed.

Lemma unscaled_f64 : forall vars, (vars <= 1020)%nat -> Nat.leb 1021 vars = false.
Proof. intros vars Hv. apply Nat.leb_gt. apply (proj2 (Nat.lt_succ_r vars 1020) Hv). Qed.

Lemma small_vars_f64 : forall vars, (vars <= 1020)%nat -> (N.of_nat vars <= 1022)%N.
Proof. intros vars Hv. eapply N.le_trans; [exact (le_of_nat vars 1020 Hv) | discriminate]. Qed.

(** [sat_count::<F64>(vars)] on a BDD for [vars <= 1020] (no rescaling): the
    rounded evaluation of the expression tree, for any number of levels *)
Corollary sat_ref_f64_bdd_rounded : forall s vars e a, s_kind s = KBdd -> (vars <= 1020)%nat ->
  walk (bdd_schemeR (bpow radix2 (Z.of_nat vars))) s (S (nlevels s)) (eref e) false = Some a ->
  exists x, sat_ref f64_ops s vars e = Some x /\ is_finite 53 1024 x = true /\ B2R 53 1024 x = a.
Proof.
  intros s vars e a Hk Hv Hw. rewrite sat_ref_unfold. unfold finish, scheme_of, start_tag. rewrite Hk, scaled_bdd_f64.
  rewrite (unscaled_f64 vars Hv). rewrite <- nat_N_Z in Hw.
  destruct (walk_f64_bdd_rounded s (N.of_nat vars) _ _ a (small_vars_f64 vars Hv) Hw) as [x [Wx [F V]]].
  exists x. unfold terminal_val.
  change (n_shl f64_ops (n_one f64_ops) vars) with (f64c_shl (n_one f64_ops) (N.of_nat vars)).
  rewrite Wx. auto.
Qed.

Corollary sat_ref_f64_bcdd_rounded : forall s vars e a, s_kind s = KBcdd -> (vars <= 1020)%nat ->
  walk (bcdd_schemeR (bpow radix2 (Z.of_nat vars))) s (S (nlevels s)) (eref e) (etag e) = Some a ->
  exists x, sat_ref f64_ops s vars e = Some x /\ is_finite 53 1024 x = true /\ B2R 53 1024 x = a.
Proof.
  intros s vars e a Hk Hv Hw. rewrite sat_ref_unfold. unfold finish, scheme_of, start_tag. rewrite Hk, scaled_bcdd_f64.
  rewrite (unscaled_f64 vars Hv). rewrite <- nat_N_Z in Hw.
  destruct (walk_f64_bcdd_rounded s (N.of_nat vars) _ _ _ a (small_vars_f64 vars Hv) Hw) as [x [Wx [F V]]].
  exists x. unfold terminal_val.
  change (n_shl f64_ops (n_one f64_ops) vars) with (f64c_shl (n_one f64_ops) (N.of_nat vars)).
  rewrite Wx. auto.
Qed.

Local Close Scope R_scope.

(** * Examples (non-vacuity) *)

(** (x0 /\ x1) \/ x2 as BDD, BCDD, ZBDD: 5.0, 10.0, 5 * 2^1020, +inf; 0 stays 0;
    the cached run agrees *)
Example ex_sat_f64 :
  sat_f64_bits ex_sat_bdd 3 (xe (RN 4)) = Some 0x4014000000000000%Z /\
  sat_f64_bits ex_sat_bdd 4 (xe (RN 4)) = Some 0x4024000000000000%Z /\
  sat_f64_bits ex_sat_bdd 1023 (xe (RN 4)) = Some 0x7fd4000000000000%Z /\
  sat_f64_bits ex_sat_bdd 1100 (xe (RN 4)) = Some 0x7ff0000000000000%Z /\
  sat_f64_bits ex_sat_bdd 3000 (xe (RN 4)) = Some 0x7ff0000000000000%Z /\
  sat_f64_bits ex_sat_bdd 1100 (xe (RT 0)) = Some 0%Z /\
  sat_f64_bits ex_sat_bcdd 3 (mkEdge (RN 4) true) = Some 0x4008000000000000%Z /\
  sat_f64_bits ex_sat_zbdd 3 (xe (RN 6)) = Some 0x4014000000000000%Z /\
  sat_f64_bits ex_sat_zbdd 1100 (xe (RN 6)) = Some 0x7ff0000000000000%Z /\
  sat_f64_cached_bits true ex_sat_bdd 1023 (xe (RN 4)) = Some 0x7fd4000000000000%Z /\
  f64_count_bits 5 = 0x4014000000000000%Z /\ f64_count_bits (5 * 2 ^ 1020) = 0x7fd4000000000000%Z /\
  f64_count_bits (2 ^ 1024) = 0x7ff0000000000000%Z.
Proof. vm_compute. repeat split; reflexivity. Qed.

(** the example history of DD/SatQueryProofs.v satisfies the hypotheses of
    [run_queries_f64] and returns 5.0, 6.0, 10.0, 8.0 *)
Example ex_f64_history_small : small_levels ex_history.
Proof. simpl. change (nlevels ex_sat_bdd) with 3. repeat split; lia. Qed.

Example ex_f64_history_run :
  match run_queries f64_ops (@cache_default binary64) ex_history with
  | Some (vs, c) => map bits_of_b64 vs =
      [0x4014000000000000; 0x4018000000000000; 0x4024000000000000; 0x4020000000000000]%Z
  | None => False
  end.
Proof. vm_compute. reflexivity. Qed.

(** the hypotheses of [sat_ref_f64] hold for the example diagram; the theorem
    instantiated: 5 * 2^1097 models over 1100 variables are +inf, 5 * 2^1020
    over 1023 variables are exact *)
Example ex_sat_f64_hyps :
  WF ex_sat_bdd /\ counting_kind (s_kind ex_sat_bdd) /\ nlevels ex_sat_bdd <= 53 /\
  ref_ok ex_sat_bdd (eref (xe (RN 4))) /\
  exact_count ex_sat_bdd 1023 (xe (RN 4)) = (5 * 2 ^ 1020)%N /\
  sat_ref f64_ops ex_sat_bdd 1023 (xe (RN 4)) = Some (f64_of_N (5 * 2 ^ 1020)) /\
  sat_ref f64_ops ex_sat_bdd 1100 (xe (RN 4)) = Some f64c_pos_inf.
Proof.
  assert (W : WF ex_sat_bdd) by (apply wf_b_spec; exact ex_sat_bdd_wf).
  assert (K : counting_kind (s_kind ex_sat_bdd)) by (left; reflexivity).
  assert (L : forall k, Nat.leb 3 k = true -> nlevels ex_sat_bdd <= k) by (intros k; apply Nat.leb_le).
  assert (R : ref_ok ex_sat_bdd (eref (xe (RN 4)))) by (simpl; eexists; reflexivity).
  assert (C : count_levels 3 (fun_bdd ex_sat_bdd (RN 4)) = 5%N) by (vm_compute; reflexivity).
  assert (E : forall vars, exact_count ex_sat_bdd vars (xe (RN 4)) = (2 ^ N.of_nat (vars - 3) * 5)%N).
  { intros vars. unfold exact_count. change (nlevels ex_sat_bdd) with 3. simpl s_kind. cbv iota.
    change (eref (xe (RN 4))) with (RN 4). rewrite C. reflexivity. }
  split; [exact W|]. split; [exact K|]. split; [exact (L 53 eq_refl)|]. split; [exact R|]. split; [|split].
  - rewrite E. exact (N.mul_comm _ 5).
  - rewrite (sat_ref_f64 _ 1023 _ W K (L 1023 eq_refl) (L 53 eq_refl) R), E.
    change (N.of_nat (1023 - 3)) with 1020%N. rewrite N.mul_comm. reflexivity.
  - apply (sat_ref_f64_overflow _ 1100 _ W K (L 1100 eq_refl) (L 53 eq_refl) R).
    rewrite E. change (N.of_nat (1100 - 3)) with 1097%N.
    apply (N.le_trans _ (2 ^ 1097 * 1)); [|apply N.mul_le_mono_l; discriminate].
    rewrite N.mul_1_r. apply N.pow_le_mono_r; discriminate.
Qed.
