(** * [sat_count] over [Saturating<u64>] / [Saturating<u128>] at the query level

    DD/SatCountProofs.v and DD/SatBcddSatProofs.v prove the saturating runs for
    the bare recursions ([sat_bdd_sat], [sat_bcdd_sat], [sat_zbdd_sat]).  The
    correspondence run replays whole calls ([sat_query] = [clear_if_invalid] +
    recursion + final rescaling, instantiated with [sat_ops w]); this file
    states the same results for [sat_ref (sat_ops w)] -- the reference value of
    a call -- and lifts them to histories on kept caches.  It also relates
    [sat_ops] (the number interface used by the counting model) to the model
    of the number type itself (Num/Saturating.v). *)
From Coq Require Import List NArith PArith Bool Arith Lia FMapPositive.
From OxiVerif Require Import DD.Table DD.TableExtra DD.TableProofs DD.SatCount DD.SatCountProofs DD.SatQueryProofs
  DD.SatBcddSatProofs Num.Saturating.
From OxiVerif Require Import DD.SatCache DD.SatCacheProofs.
Import ListNotations.

Arguments N.add : simpl never.
Arguments N.sub : simpl never.
Arguments N.mul : simpl never.
Arguments N.div : simpl never.
Arguments N.modulo : simpl never.
Arguments N.pow : simpl never.

(** [sat_ops w] is [Saturating<uW>] of Num/Saturating.v ([>>] for the shift
    amounts below [W]; Rust takes the amount modulo [W] in release builds and
    panics in debug builds beyond) *)
Theorem sat_ops_saturating : forall w a b k,
  n_zero (sat_ops w) = su_from_u32 0 /\ n_one (sat_ops w) = su_from_u32 1 /\
  n_add (sat_ops w) a b = su_add w a b /\
  n_shl (sat_ops w) a k = su_shl w a (N.of_nat k) /\
  ((N.of_nat k < w)%N -> n_shr (sat_ops w) a k = su_shr w a (N.of_nat k)).
Proof.
  intros w a b k. repeat split; try reflexivity.
  intros Hk. simpl n_shr. unfold su_shr, sat_max, su_max. rewrite (N.mod_small _ _ Hk). reflexivity.
Qed.

(** what a call must return in [Saturating<uW>] for the exact count [x] *)
Definition sat_expected (w : N) (k : kind) (vars : nat) (x : N) : N :=
  match k with
  | KZbdd => sat_fit w x            (* the count while it is representable, else the marker *)
  | _ => saturate w vars x          (* the count while 2^vars is representable, else the marker (0 stays 0) *)
  end.

Lemma shl0_id : forall w x, (x < 2 ^ w)%N -> n_shl (sat_ops w) x 0 = x.
Proof.
  intros w x Hx. simpl n_shl. destruct (N.eqb_spec x 0) as [->|Hnz]; [reflexivity|].
  change (N.of_nat 0) with 0%N.
  destruct (N.ltb_spec (w - N.size x) 0) as [X|_]; [lia|].
  change (2 ^ 0)%N with 1%N. rewrite N.mul_1_r. apply N.mod_small. exact Hx.
Qed.

Lemma saturate_lt : forall w vars x, (1 <= w)%N -> (x <= 2 ^ N.of_nat vars)%N -> (saturate w vars x < 2 ^ w)%N.
Proof.
  intros w vars x Hw Hx. unfold saturate, sat_max.
  assert (Hp : (0 < 2 ^ w)%N) by (apply pow2_pos).
  destruct (N.ltb_spec (N.of_nat vars) w) as [L|G].
  - eapply N.le_lt_trans; [exact Hx|]. apply N.pow_lt_mono_r; [reflexivity | exact L].
  - destruct (N.eqb_spec x 0); lia.
Qed.

Theorem sat_ref_saturating : forall w, (2 <= w)%N -> forall s vars e,
  WF s -> counting_kind (s_kind s) -> (s_kind s = KBcdd -> terms_kind s) ->
  (s_kind s = KZbdd -> (N.of_nat (nlevels s) < w)%N) ->
  nlevels s <= vars -> ref_ok s (eref e) ->
  sat_ref (sat_ops w) s vars e = Some (sat_expected w (s_kind s) vars (exact_count s vars e)).
Proof.
  intros w Hw s vars e H Hk Ht Hz Hv Hok. unfold sat_ref, sat_expected, exact_count.
  destruct Hk as [Hk|[Hk|Hk]]; rewrite Hk.
  - change (scaled_bdd (sat_ops w) vars) with false. unfold terminal_val, rescale.
    change (n_one (sat_ops w)) with 1%N.
    fold (sat_bdd_sat w s (S (nlevels s)) vars (eref e)).
    rewrite (sat_bdd_saturating w Hw s vars (eref e) H Hk Hv Hok), (sat_bdd_correct s vars (eref e) H Hk Hv Hok).
    reflexivity.
  - change (scaled_bcdd (sat_ops w) vars) with true. unfold terminal_val, rescale.
    change (n_one (sat_ops w)) with 1%N. change (n_scale (sat_ops w)) with 0. rewrite Nat.sub_0_r.
    fold (sat_bcdd_sat w s (S (nlevels s)) vars e).
    rewrite (sat_bcdd_saturating w Hw s vars e H Hk (Ht Hk) Hv Hok), (sat_bcdd_correct s vars e H Hk Hv Hok).
    simpl option_map. f_equal. apply shl0_id. apply saturate_lt; [lia|].
    rewrite <- (pow2_sub vars (nlevels s) Hv). apply N.mul_le_mono_l. apply cnt_le.
  - fold (sat_zbdd_sat w s (S (nlevels s)) vars (eref e)).
    apply (sat_zbdd_saturating w Hw s vars (eref e) H Hk Hv (Hz Hk) Hok).
Qed.

(** * Histories *)

(** the side conditions of [sat_ref_saturating] along a history *)
Fixpoint sat_hist (w : N) (m : mgr) (evs : list event) : Prop :=
  match evs with
  | [] => True
  | ECount _ vars e :: rest =>
    (s_kind (m_snap m) = KBcdd -> terms_kind (m_snap m)) /\
    (s_kind (m_snap m) = KZbdd -> (N.of_nat (nlevels (m_snap m)) < w)%N) /\ sat_hist w m rest
  | ev :: rest => sat_hist w (mgr_step m ev) rest
  end.

Fixpoint sat_events (w : N) (m : mgr) (evs : list event) : list N :=
  match evs with
  | [] => []
  | ECount _ vars e :: rest =>
    sat_expected w (s_kind (m_snap m)) vars (exact_count (m_snap m) vars e) :: sat_events w m rest
  | ev :: rest => sat_events w (mgr_step m ev) rest
  end.

Lemma ref_events_saturating : forall w, (2 <= w)%N -> forall evs m,
  mgr_ok m -> hist_valid m evs -> counting_hist m evs -> sat_hist w m evs ->
  ref_events (sat_ops w) true m evs = map Some (sat_events w m evs).
Proof.
  intros w Hw. induction evs as [|ev rest IH]; intros m Hm Hv Hc Hs; [reflexivity|].
  destruct Hv as [Hst Hr]. pose proof (mgr_ok_step m ev Hm Hst) as Hm'.
  destruct ev as [s'|s'|s'|cid vars e]; simpl in *; try (apply IH; assumption).
  destruct Hc as [Hk [Hl Hc]]. destruct Hs as [Ht [Hz Hs]]. destruct Hm as [H Hb].
  rewrite (sat_ref_saturating w Hw (m_snap m) vars e H Hk Ht Hz Hl Hst). f_equal.
  apply IH; [split|..]; assumption.
Qed.

(** every count served through any kept cache, over any history, in
    [Saturating<uW>]: the number of satisfying assignments, or the marker
    exactly when the type cannot hold [2^vars] (ZBDD: the count itself) *)
Theorem cache_history_saturating : forall w, (2 <= w)%N -> forall alls evs m,
  mgr_ok m -> hist_valid m evs -> counting_hist m evs -> sat_hist w m evs ->
  exists cs', run_events (sat_ops w) alls m (PositiveMap.empty _) evs =
              Some (sat_events w m evs, final_mgr m evs, cs').
Proof.
  intros w Hw alls evs m Hm Hv Hc Hs.
  apply (cache_history_values (sat_ops w) alls evs m _ Hm Hv (ref_events_saturating w Hw evs m Hm Hv Hc Hs)).
Qed.

(** non-vacuity: the id-reuse history of DD/SatCache.v in [Saturating<u64>], with 3 and with 64 variables *)
Example ex_reuse_u64 :
  sat_hist 64 ex_mgr0 ex_reuse_events /\
  match run_events (sat_ops 64) (fun _ => true) ex_mgr0 (PositiveMap.empty _) ex_reuse_events with
  | Some (vs, _, _) => vs = [5; 2]%N
  | None => False
  end /\
  sat_ref (sat_ops 64) ex_sat_bdd 64 (xe (RN 4)) = Some (sat_max 64) /\
  sat_ref (sat_ops 64) ex_sat_bdd 63 (xe (RN 4)) = Some (5 * 2 ^ 60)%N.
Proof.
  split; [simpl; repeat split; intros X; discriminate|]. vm_compute. repeat split; reflexivity.
Qed.
