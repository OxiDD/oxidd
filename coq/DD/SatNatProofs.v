(** * [sat_count::<Natural>]: the arbitrary-precision type in the counting recursion

    DD/SatCount.v proves the counts in exact arithmetic on [N] ([exact_ops]),
    "what a correct arbitrary-precision type computes".  Here the recursion is
    run over the model of the real type ([nat_ops] of DD/SatCache.v: the
    operations of Num/Natural.v, i.e. of bigint.rs) and shown to return a
    [Natural] that satisfies the representation invariant and denotes exactly
    the number of satisfying assignments -- never the error value NaN: every
    halving [(a + b) >> 1] is exact (DD/SatCountProofs.v), and no exponent can
    reach [u64::MAX] because [vars] is a [u32]. *)
From Coq Require Import List NArith PArith Bool Arith Lia FMapPositive.
From OxiVerif Require Import DD.Table DD.TableExtra DD.TableProofs DD.SatCount DD.SatCountProofs DD.SatQueryProofs.
From OxiVerif Require Import Num.Natural Num.NatBase Num.NaturalProofs Num.NaturalAddProofs.
From OxiVerif Require Import DD.SatCache DD.SatCacheProofs.
Import ListNotations.

Arguments N.add : simpl never.
Arguments N.sub : simpl never.
Arguments N.mul : simpl never.
Arguments N.div : simpl never.
Arguments N.modulo : simpl never.
Arguments N.pow : simpl never.

Local Open Scope N_scope.

(** a number below [2^K], [K < u64::MAX], is representable (its exponent, the
    number of trailing zero bits, is below [u64::MAX]) *)
Lemma norm_small : forall v K, v < 2 ^ K -> K < U64MAX -> norm v = Some v.
Proof.
  intros v K Hv HK. unfold norm. destruct (N.eqb_spec v 0) as [E|E]; [reflexivity|].
  pose proof (ctz_lt_size v E) as Hc. apply size_le_iff in Hv.
  destruct (N.ltb_spec (ctz v) U64MAX) as [_|X]; [reflexivity | lia].
Qed.

Section NatRel.
Variable K : N.                       (* all values are at most [2^K] *)
Hypothesis HK : K < 2 ^ 32.

(** the [Natural] [x] is well-formed and holds exactly [a] *)
Definition RelN (a : N) (x : natural) : Prop := Inv x /\ val x = Some a /\ a <= 2 ^ K.

Lemma K_small : K + 2 < U64MAX.
Proof. change (2 ^ 32) with 4294967296 in HK. unfold U64MAX. lia. Qed.

Lemma reln_zero : RelN 0 (n_zero nat_ops).
Proof.
  destruct (from_u32_spec 0 ltac:(reflexivity)) as [I V]. split; [exact I|]. split; [exact V|].
  pose proof (p2_pos K). lia.
Qed.

Lemma reln_one : RelN 1 (n_one nat_ops).
Proof.
  destruct (from_u32_spec 1 ltac:(reflexivity)) as [I V]. split; [exact I|]. split; [exact V|].
  pose proof (p2_pos K). lia.
Qed.

(** [x << k] (the shift amount is a [u32]) *)
Lemma reln_shl : forall a x k, RelN a x -> N.of_nat k < 2 ^ 32 -> a * 2 ^ N.of_nat k <= 2 ^ K ->
  RelN (a * 2 ^ N.of_nat k) (n_shl nat_ops x k).
Proof.
  intros a x k [I [V B]] Hk Hb. pose proof K_small as Hs.
  assert (Hk' : N.of_nat k <= U64MAX) by (change (2 ^ 32) with 4294967296 in Hk; unfold U64MAX; lia).
  destruct (nat_shl_spec x (N.of_nat k) I Hk') as [I' V']. simpl n_shl.
  split; [exact I'|]. split; [|exact Hb]. rewrite V', V.
  apply (norm_small _ (K + 1)); [|lia]. rewrite N.add_1_r, N.pow_succ_r'. pose proof (p2_pos K). lia.
Qed.

(** [x + y] *)
Lemma reln_add : forall a b x y, RelN a x -> RelN b y -> a + b <= 2 ^ K -> RelN (a + b) (n_add nat_ops x y).
Proof.
  intros a b x y [Ia [Va Ba]] [Ib [Vb Bb]] Hs. pose proof K_small as Hk.
  destruct (nat_add_spec x y Ia Ib) as [I V]. simpl n_add. split; [exact I|]. split; [|exact Hs].
  rewrite V, Va, Vb. apply (norm_small _ (K + 1)); [|lia].
  rewrite N.add_1_r, N.pow_succ_r'. pose proof (p2_pos K). lia.
Qed.

(** [(x + y) >> 1] when the sum is even *)
Lemma reln_halve : forall a b x y, RelN a x -> RelN b y -> (a + b) mod 2 = 0 ->
  RelN ((a + b) / 2) (n_shr nat_ops (n_add nat_ops x y) 1).
Proof.
  intros a b x y [Ia [Va Ba]] [Ib [Vb Bb]] He. pose proof K_small as Hk.
  destruct (nat_add_spec x y Ia Ib) as [I V]. rewrite Va, Vb in V.
  rewrite (norm_small (a + b) (K + 2)) in V.
  2:{ replace (K + 2) with (N.succ (N.succ K)) by lia. rewrite !N.pow_succ_r'. pose proof (p2_pos K). lia. }
  2:{ exact Hk. }
  destruct (nat_shr_spec (nat_add x y) 1 I ltac:(unfold U64MAX; lia)) as [I' V'].
  simpl n_shr. simpl n_add. change (N.of_nat 1) with 1. split; [exact I'|]. split.
  - rewrite V', V. change (2 ^ 1) with 2. rewrite He. reflexivity.
  - apply N.div_le_upper_bound; [discriminate | lia].
Qed.

End NatRel.

Local Close Scope N_scope.

(** [sat_ref_sim] with [RelN]: the values stay below [2^vars], the path counts
    of a ZBDD below [2^levels]; the integer types run through [res << 0] at the
    end of the BCDD version *)
Theorem sat_ref_nat : forall s vars e, WF s -> counting_kind (s_kind s) -> nlevels s <= vars ->
  (N.of_nat vars < 2 ^ 32)%N -> ref_ok s (eref e) ->
  exists x, sat_ref nat_ops s vars e = Some x /\ Inv x /\ val x = Some (exact_count s vars e).
Proof.
  intros s vars e H Hk Hv H32 Hok. set (n := nlevels s).
  assert (Hn32 : (N.of_nat n < 2 ^ 32)%N) by (unfold n; lia).
  apply (sat_ref_sim nat_ops s vars H Hv (RelN (N.of_nat vars)) (RelN (N.of_nat n))
           (fun v x => Inv x /\ val x = Some v)); try assumption.
  - apply reln_zero. exact H32.
  - intros sc _. unfold terminal_val. simpl n_scale. rewrite Nat.sub_0_r, <- (N.mul_1_l (2 ^ N.of_nat vars)).
    destruct sc; (apply reln_shl; [exact H32 | apply reln_one; exact H32 | exact H32 | lia]).
  - intros a0 a1 x0 x1 c R0 R1 He _ _ _. apply reln_halve; assumption.
  - intros sc c x _ Rx Hc. set (a := (_ * c)%N) in *.
    assert (Rf : RelN (N.of_nat vars) (a * 2 ^ N.of_nat 0)%N (n_shl nat_ops x 0)).
    { destruct Rx as [I [V B]].
      apply reln_shl; [exact H32 | split; [exact I | split; [exact V | exact B]] | reflexivity |].
      change (2 ^ N.of_nat 0)%N with 1%N. lia. }
    change (2 ^ N.of_nat 0)%N with 1%N in Rf. rewrite N.mul_1_r in Rf.
    destruct sc; [destruct Rf as [I [V _]] | destruct Rx as [I [V _]]]; split; assumption.
  - apply reln_zero. exact Hn32.
  - apply reln_one. exact Hn32.
  - intros a0 a1 x0 x1 R0 R1 Hle. apply reln_add; assumption.
  - intros c x [I [V B]] _. fold n.
    assert (Rf : RelN (N.of_nat vars) (c * 2 ^ N.of_nat (vars - n))%N (n_shl nat_ops x (vars - n))).
    { apply reln_shl; [exact H32 | | lia |].
      - split; [exact I|]. split; [exact V|]. eapply N.le_trans; [exact B|]. apply N.pow_le_mono_r; lia.
      - rewrite <- (pow2_sub vars n Hv), N.mul_comm. apply N.mul_le_mono_l. exact B. }
    rewrite N.mul_comm. destruct Rf as [I' [V' _]]. split; assumption.
Qed.

(** * Histories: kept caches over [Natural] *)

(** [vars] is a [LevelNo = u32] *)
Fixpoint u32_hist (evs : list event) : Prop :=
  match evs with
  | [] => True
  | ECount _ vars _ :: rest => (N.of_nat vars < 2 ^ 32)%N /\ u32_hist rest
  | _ :: rest => u32_hist rest
  end.

Lemma ref_events_nat : forall evs m, mgr_ok m -> hist_valid m evs -> counting_hist m evs -> u32_hist evs ->
  Forall2 (fun r a => exists x, r = Some x /\ Inv x /\ val x = Some a)
          (ref_events nat_ops true m evs) (exact_events m evs).
Proof.
  induction evs as [|ev rest IH]; intros m Hm Hv Hc Hu; [constructor|].
  destruct Hv as [Hs Hr]. pose proof (mgr_ok_step m ev Hm Hs) as Hm'.
  destruct ev as [s'|s'|s'|cid vars e]; simpl in *; try (apply IH; assumption).
  destruct Hc as [Hk [Hl Hc]]. destruct Hu as [H32 Hu]. destruct Hm as [H Hb].
  constructor; [|apply IH; [split|..]; assumption].
  destruct (sat_ref_nat (m_snap m) vars e H Hk Hl H32 Hs) as [x [E [I V]]]. exists x. auto.
Qed.

(** every count served through any kept cache, over any history, is a
    well-formed [Natural] holding exactly the number of satisfying assignments *)
Theorem cache_history_nat : forall alls evs m, mgr_ok m -> hist_valid m evs -> counting_hist m evs -> u32_hist evs ->
  exists vs cs', run_events nat_ops alls m (PositiveMap.empty _) evs = Some (vs, final_mgr m evs, cs') /\
    Forall2 (fun x a => Inv x /\ val x = Some a) vs (exact_events m evs).
Proof.
  intros alls evs m Hm Hv Hc Hu.
  destruct (cache_history_correct nat_ops alls evs m Hm Hv) as [vs [cs' [Er Ef]]].
  exists vs, cs'. split; [exact Er|].
  pose proof (ref_events_nat evs m Hm Hv Hc Hu) as Hf. rewrite <- Ef in Hf. clear - Hf.
  revert Hf. generalize (exact_events m evs). induction vs as [|v vs IH]; intros l Hf; inversion Hf; subst; constructor.
  - destruct H1 as [x [E [I V]]]. inversion E; subst x. split; assumption.
  - apply IH. assumption.
Qed.

(** non-vacuity: the example history of DD/SatCache.v over [Natural] *)
Example ex_reuse_nat :
  u32_hist ex_reuse_events /\
  match run_events nat_ops (fun _ => true) ex_mgr0 (PositiveMap.empty _) ex_reuse_events with
  | Some (vs, _, _) => map val vs = [Some 5%N; Some 2%N]
  | None => False
  end.
Proof. split; [simpl; repeat split; vm_compute; reflexivity | vm_compute; reflexivity]. Qed.
