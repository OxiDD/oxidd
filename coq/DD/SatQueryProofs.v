(** * [SatCountCache] across calls: validity of reused caches (DD/SatCount.v, [sat_query], [run_queries])

    One cache object is handed to a sequence of [sat_count] calls on the same
    manager.  Between two calls the manager may have been changed arbitrarily:
    nodes added, handles dropped, garbage collected, reordered, variables
    added.  [clear_if_invalid] keeps the map only if the call has the same
    [(gc_count, vars)] as the previous one.  The theorems: for every number
    type, every call of every such history returns exactly what the same call
    returns on a fresh cache without caching ([sat_ref]), provided that
    between two consecutive calls with the same [gc_count] the node table was
    only extended (no collection and no reordering: these increase
    [gc_count]).  For exact arithmetic the returned value is therefore the
    number of satisfying assignments (DD/SatCountProofs.v). *)

From Coq Require Import List NArith PArith Bool Arith Lia FMapPositive.
From OxiVerif Require Import DD.Table DD.TableExtra DD.TableProofs DD.SatCount DD.SatCountProofs.
Import ListNotations.

Section Query.
Context {A : Type}.
Variable o : numops A.

(** the recursion scheme, the tag of the root edge and the final rescaling of
    [sat_count_edge] for the three kinds *)
Definition scheme_of (k : kind) (vars : nat) : scheme A :=
  match k with
  | KBcdd => bcdd_scheme o (terminal_val o (scaled_bcdd o vars) vars)
  | KZbdd => zbdd_scheme o
  | _ => bdd_scheme o (terminal_val o (scaled_bdd o vars) vars)
  end.

Definition start_tag (k : kind) (e : edge) : bool :=
  match k with KBcdd => etag e | _ => false end.

Definition finish (s : snap) (vars : nat) (v : A) : A :=
  match s_kind s with
  | KBcdd => rescale o (scaled_bcdd o vars) v
  | KZbdd => zbdd_shift o s vars v
  | _ => rescale o (scaled_bdd o vars) v
  end.

Lemma sat_query_unfold : forall c epoch s vars e,
  sat_query o c epoch s vars e =
  let c' := clear_if_invalid c epoch vars in
  match walkc (scheme_of (s_kind s) vars) s (S (nlevels s)) (c_all c') (eref e)
              (start_tag (s_kind s) e) (c_map c') with
  | Some (r, m) => Some (finish s vars r, set_map c' m)
  | None => None
  end.
Proof.
  intros c epoch s vars e. unfold sat_query, finish, scheme_of, start_tag,
    sat_count_bdd, sat_count_bcdd, sat_count_zbdd. cbv zeta.
  destruct (s_kind s);
    match goal with |- context [walkc ?a ?b ?c ?d ?e ?f ?g] => destruct (walkc a b c d e f g) as [[r m]|] end;
    reflexivity.
Qed.

Lemma sat_ref_unfold : forall s vars e,
  sat_ref o s vars e =
  option_map (finish s vars)
    (walk (scheme_of (s_kind s) vars) s (S (nlevels s)) (eref e) (start_tag (s_kind s) e)).
Proof.
  intros s vars e. unfold sat_ref, finish, scheme_of, start_tag. destruct (s_kind s); reflexivity.
Qed.

(** the side conditions of the generic cache theorem hold for the three schemes *)
Lemma scheme_key_inj : forall k vars t t' id id',
  sc_tagok (scheme_of k vars) t = true -> sc_tagok (scheme_of k vars) t' = true ->
  sc_key (scheme_of k vars) t id = sc_key (scheme_of k vars) t' id' -> id = id' /\ t = t'.
Proof.
  intros k vars t t' id id'. destruct k; simpl; intros H1 H2 E;
    try (destruct t, t'; try discriminate; split; [exact E | reflexivity]).
  destruct t, t'; try discriminate; inversion E; split; reflexivity.
Qed.

Lemma scheme_tag_closed : forall k vars t ct,
  sc_tagok (scheme_of k vars) t = true -> sc_tagok (scheme_of k vars) (sc_tag (scheme_of k vars) t ct) = true.
Proof. intros k vars t ct. destruct k; simpl; intros; reflexivity. Qed.

Lemma scheme_start_tagok : forall k vars e, sc_tagok (scheme_of k vars) (start_tag k e) = true.
Proof. intros k vars e. destruct k; reflexivity. Qed.

Lemma scheme_term_total : forall k vars s t tag, (exists v, term_val s t = Some v) ->
  exists a, sc_term (scheme_of k vars) s t tag = Some a.
Proof.
  intros k vars s t tag [v Ev]. destruct k; simpl; try rewrite Ev; eauto.
Qed.

Lemma scheme_term_same : forall k vars s s', same_table s s' ->
  forall t tag, sc_term (scheme_of k vars) s' t tag = sc_term (scheme_of k vars) s t tag.
Proof.
  intros k vars s s' X t tag. destruct k; simpl; try rewrite (st_terms s s' X); reflexivity.
Qed.

(** the reference value exists for every well-formed binary diagram *)
Lemma sat_ref_total : forall s vars e, WF s -> binary (s_kind s) -> ref_ok s (eref e) ->
  exists v, sat_ref o s vars e = Some v.
Proof.
  intros s vars e H Hb Hok. rewrite sat_ref_unfold.
  destruct (walk_total (scheme_of (s_kind s) vars) s H Hb
              (scheme_term_total (s_kind s) vars s) (S (nlevels s)) (eref e)
              (start_tag (s_kind s) e) Hok ltac:(lia)) as [a Ea].
  rewrite Ea. simpl. eauto.
Qed.

(** ** One call *)

(** the content of a cache is valid for the table [s]: every entry is the
    value the uncached recursion computes in [s] under the stored [vars] *)
Definition cache_valid (c : scache) (s : snap) : Prop :=
  cache_ok (scheme_of (s_kind s) (c_vars c)) s (c_map c).

Lemma cache_valid_default : forall s, cache_valid (@cache_default A) s.
Proof. intros s. unfold cache_valid. simpl. apply cache_ok_empty. Qed.

(** [clear_if_invalid]: the map is kept only under the same [(epoch, vars)] *)
Lemma clear_if_invalid_spec : forall (c : scache) epoch vars,
  let c' := clear_if_invalid c epoch vars in
  c_epoch c' = epoch /\ c_vars c' = vars /\ c_all c' = c_all c /\
  ((c_epoch c = epoch /\ c_vars c = vars /\ c' = c) \/
   ((c_epoch c <> epoch \/ c_vars c <> vars) /\ c_map c' = PositiveMap.empty A)).
Proof.
  intros c epoch vars. unfold clear_if_invalid.
  destruct (N.eqb_spec epoch (c_epoch c)) as [Ee|Ee]; destruct (Nat.eqb_spec vars (c_vars c)) as [Ev|Ev]; simpl;
    (split; [auto|]); (split; [auto|]); (split; [auto|]).
  - left. repeat split; auto.
  - right. split; [right; congruence | reflexivity].
  - right. split; [left; congruence | reflexivity].
  - right. split; [left; congruence | reflexivity].
Qed.

(** a call on a cache that is valid for the current table -- or that is
    cleared by the call -- returns the reference value and leaves a cache that
    is valid for the current table under the call's [(epoch, vars)] *)
Theorem sat_query_sound : forall c epoch s vars e v,
  WF s -> binary (s_kind s) -> ref_ok s (eref e) ->
  (c_epoch c = epoch -> c_vars c = vars -> cache_valid c s) ->
  sat_ref o s vars e = Some v ->
  exists c', sat_query o c epoch s vars e = Some (v, c') /\
    c_epoch c' = epoch /\ c_vars c' = vars /\ c_all c' = c_all c /\ cache_valid c' s.
Proof.
  intros c epoch s vars e v H Hb Hok Hc Hr.
  rewrite sat_query_unfold. cbv zeta. rewrite sat_ref_unfold in Hr.
  destruct (clear_if_invalid_spec c epoch vars) as [E1 [E2 [E3 E4]]]. cbv zeta in *.
  set (c1 := clear_if_invalid c epoch vars) in *.
  assert (Hc1 : cache_ok (scheme_of (s_kind s) vars) s (c_map c1)).
  { destruct E4 as [[Ee [Ev Ec]]|[_ Em]].
    - rewrite Ec. specialize (Hc Ee Ev). unfold cache_valid in Hc. rewrite Ev in Hc. exact Hc.
    - rewrite Em. apply cache_ok_empty. }
  destruct (walk (scheme_of (s_kind s) vars) s (S (nlevels s)) (eref e) (start_tag (s_kind s) e)) as [r|] eqn:Ew;
    [|discriminate].
  simpl in Hr. inversion Hr; subst v.
  destruct (walkc_sound (scheme_of (s_kind s) vars) s H (scheme_key_inj (s_kind s) vars)
              (scheme_tag_closed (s_kind s) vars) (S (nlevels s)) (c_all c1) (eref e)
              (start_tag (s_kind s) e) (c_map c1) r Hok (scheme_start_tagok _ _ _) Hc1 Ew) as [m' [Wc Cm]].
  rewrite Wc. eexists. split; [reflexivity|]. simpl. repeat split; auto.
  unfold cache_valid. simpl. rewrite E2. exact Cm.
Qed.

(** a valid cache stays valid while the table is only extended *)
Lemma cache_valid_extend : forall c s s', WF s -> WF s' -> same_table s s' ->
  cache_valid c s -> cache_valid c s'.
Proof.
  intros c s s' H H' X Hc. unfold cache_valid in *. rewrite (st_kind s s' X).
  apply (cache_ok_same_table _ s s' (c_map c) H H' X); [|exact Hc].
  apply scheme_term_same. exact X.
Qed.

(** ** Histories *)

(** a call is well-formed *)
Definition qok (q : query) : Prop :=
  WF (q_snap q) /\ binary (s_kind (q_snap q)) /\ ref_ok (q_snap q) (eref (q_edge q)).

(** The epoch discipline of the manager: [prev] is the previous call.  If the
    next call sees the same [gc_count] then neither a collection nor a
    reordering happened in between, so the previous node table is contained
    in the current one (nodes are only added; ids are not recycled).
    Everything else may have changed arbitrarily. *)
Fixpoint hist_ok (prev : query) (qs : list query) : Prop :=
  match qs with
  | [] => True
  | q :: rest =>
    qok q /\
    (q_epoch q = q_epoch prev -> same_table (q_snap prev) (q_snap q)) /\
    hist_ok q rest
  end.

Definition refs_of (qs : list query) (vs : list A) : Prop :=
  Forall2 (fun q v => sat_ref o (q_snap q) (q_vars q) (q_edge q) = Some v) qs vs.

(** the state of the cache object before a call: it was left by the call
    [prev] (and is valid for that call's table), or it is valid for every
    table (the empty map of [SatCountCache::default()]) *)
Definition cache_state (c : scache) (prev : query) : Prop :=
  (c_epoch c = q_epoch prev /\ cache_valid c (q_snap prev)) \/ (forall s, cache_valid c s).

Lemma run_queries_from : forall qs prev c,
  WF (q_snap prev) -> cache_state c prev -> hist_ok prev qs ->
  exists vs c', run_queries o c qs = Some (vs, c') /\ refs_of qs vs.
Proof.
  induction qs as [|q rest IH]; intros prev c Hp Hc Hh.
  - exists [], c. split; [reflexivity | constructor].
  - destruct Hh as [[Hw [Hb Hok]] [Hsame Hrest]].
    destruct (sat_ref_total (q_snap q) (q_vars q) (q_edge q) Hw Hb Hok) as [v Ev].
    assert (Hcq : c_epoch c = q_epoch q -> c_vars c = q_vars q -> cache_valid c (q_snap q)).
    { intros Ee _. destruct Hc as [[Ep Hv]|Hall]; [|apply Hall].
      apply (cache_valid_extend c (q_snap prev) (q_snap q) Hp Hw); [|exact Hv].
      apply Hsame. congruence. }
    destruct (sat_query_sound c (q_epoch q) (q_snap q) (q_vars q) (q_edge q) v Hw Hb Hok Hcq Ev)
      as [c1 [Eq [Ee1 [Ev1 [_ Hv1]]]]].
    destruct (IH q c1 Hw (or_introl (conj Ee1 Hv1)) Hrest) as [vs [c2 [Er Hf]]].
    exists (v :: vs), c2. simpl. rewrite Eq, Er. split; [reflexivity|]. constructor; assumption.
Qed.

(** Reused caches are transparent: a sequence of calls sharing one cache
    object that starts with [SatCountCache::default()] returns, call by call,
    the values of the uncached computation on a fresh cache. *)
Theorem run_queries_correct : forall q qs,
  qok q -> hist_ok q qs ->
  exists vs c', run_queries o (@cache_default A) (q :: qs) = Some (vs, c') /\ refs_of (q :: qs) vs.
Proof.
  intros q qs Hq Hh. apply (run_queries_from (q :: qs) q (@cache_default A)).
  - apply Hq.
  - right. apply cache_valid_default.
  - simpl. split; [exact Hq|]. split; [|exact Hh]. intros _. apply same_table_refl.
Qed.

Lemma run_queries_values : forall (g : query -> A) q qs,
  qok q -> hist_ok q qs ->
  Forall (fun x => qok x -> sat_ref o (q_snap x) (q_vars x) (q_edge x) = Some (g x)) (q :: qs) ->
  exists c', run_queries o (@cache_default A) (q :: qs) = Some (map g (q :: qs), c').
Proof.
  intros g q qs Hq Hh Hg.
  destruct (run_queries_correct q qs Hq Hh) as [vs [c' [Er Hf]]].
  exists c'. rewrite Er. f_equal. f_equal.
  assert (Hall : Forall qok (q :: qs)).
  { constructor; [exact Hq|]. clear - Hh. revert q Hh. induction qs as [|x r IH]; intros q Hh; [constructor|].
    destruct Hh as [Hx [_ Hr]]. constructor; [exact Hx | apply (IH x Hr)]. }
  clear - Hf Hg Hall. revert Hg Hall. induction Hf as [|x v l l' Hxv _ IH]; intros Hg Hall; [reflexivity|].
  inversion Hg as [|? ? Hgx Hg']; subst. inversion Hall as [|? ? Hx Hall']; subst.
  simpl map. rewrite (Hgx Hx) in Hxv. injection Hxv as <-. f_equal. apply IH; assumption.
Qed.

(** an entry is used only under the [(gc_count, vars)] it was stored under:
    a call with another epoch or another [vars] starts from the empty map *)
Theorem sat_query_clears : forall (c : scache) epoch s vars e,
  c_epoch c <> epoch \/ c_vars c <> vars ->
  sat_query o c epoch s vars e =
  sat_query o (mkCache epoch vars (PositiveMap.empty A) (c_all c)) epoch s vars e.
Proof.
  intros c epoch s vars e Hd. unfold sat_query.
  assert (E : clear_if_invalid c epoch vars =
              clear_if_invalid (mkCache epoch vars (PositiveMap.empty A) (c_all c)) epoch vars).
  { unfold clear_if_invalid. simpl. rewrite N.eqb_refl, Nat.eqb_refl. simpl.
    destruct (N.eqb_spec epoch (c_epoch c)) as [Ee|Ee]; destruct (Nat.eqb_spec vars (c_vars c)) as [Ev|Ev];
      simpl; try reflexivity.
    exfalso. destruct Hd; congruence. }
  rewrite E. reflexivity.
Qed.

End Query.

(** ** Exact arithmetic: every call of a history returns the model count *)

Arguments N.mul : simpl never.
Arguments N.pow : simpl never.
Arguments N.div : simpl never.

(** the number of satisfying assignments over [vars] variables of the function
    of the edge [e] ([vars - nlevels] variables do not occur in the diagram) *)
Definition exact_count (s : snap) (vars : nat) (e : edge) : N :=
  (2 ^ N.of_nat (vars - nlevels s) *
   count_levels (nlevels s)
     (match s_kind s with
      | KBcdd => fun_bcdd s e
      | KZbdd => fun_zbdd s (eref e)
      | _ => fun_bdd s (eref e)
      end))%N.

Definition counting_kind (k : kind) : Prop := k = KBdd \/ k = KBcdd \/ k = KZbdd.

Lemma terminal_val_exact : forall sc vars,
  terminal_val exact_ops sc vars = (2 ^ N.of_nat vars)%N.
Proof.
  intros sc vars. unfold terminal_val. simpl. rewrite Nat.sub_0_r. destruct sc; apply N.mul_1_l.
Qed.

Theorem sat_ref_exact : forall s vars e, WF s -> counting_kind (s_kind s) -> nlevels s <= vars ->
  ref_ok s (eref e) ->
  sat_ref exact_ops s vars e = Some (exact_count s vars e).
Proof.
  intros s vars e H Hk Hv Hok. unfold sat_ref, exact_count.
  destruct Hk as [Hk|[Hk|Hk]]; rewrite Hk.
  - rewrite terminal_val_exact. fold (sat_bdd s (S (nlevels s)) vars (eref e)).
    rewrite (sat_bdd_correct s vars (eref e) H Hk Hv Hok). reflexivity.
  - rewrite terminal_val_exact. fold (sat_bcdd s (S (nlevels s)) vars e).
    rewrite (sat_bcdd_correct s vars e H Hk Hv Hok). simpl option_map. f_equal.
    unfold rescale, scaled_bcdd. simpl. change (2 ^ 0)%N with 1%N. apply N.mul_1_r.
  - fold (paths_zbdd s (S (nlevels s)) (eref e)). fold (sat_zbdd s (S (nlevels s)) vars (eref e)).
    apply (sat_zbdd_correct s vars (eref e) H Hk Hv Hok).
Qed.

(** ** Any number type: a call returns a representation of the exact count

    [R] relates the exact values of the halving recursion (BDD, BCDD) to the
    values of the number type, [Rz] those of the path count (ZBDD), [Rf] the
    final count to the result.  What has to be shown of the number type: the
    terminal values are related, a halving step preserves [R] (it is exact:
    the two values add up to twice [2^(vars - levels) * c], [c] the count of
    the node over the levels), a sum preserves [Rz] (it is at most
    [2^levels]), and the final rescaling / shift leads to [Rf]. *)
Section RefSim.
Context {A : Type}.
Variables (o : numops A) (s : snap) (vars : nat).
Hypothesis H : WF s.
Hypothesis Hv : nlevels s <= vars.
Variables R Rz Rf : N -> A -> Prop.

Let n := nlevels s.
Let K : N := (2 ^ N.of_nat (vars - n))%N.
Let scaled (sc : bool) : Prop := sc = scaled_bdd o vars \/ sc = scaled_bcdd o vars.

Hypothesis R_zero : R 0%N (n_zero o).
Hypothesis R_term : forall sc, scaled sc -> R (2 ^ N.of_nat vars)%N (terminal_val o sc vars).
Hypothesis R_halve : forall a0 a1 x0 x1 c, R a0 x0 -> R a1 x1 ->
  ((a0 + a1) mod 2 = 0)%N -> ((a0 + a1) / 2 = K * c)%N -> (2 * ((a0 + a1) / 2) = a0 + a1)%N ->
  (c <= 2 ^ N.of_nat n)%N -> R ((a0 + a1) / 2)%N (n_shr o (n_add o x0 x1) 1).
Hypothesis R_finish : forall sc c x, scaled sc -> R (K * c)%N x -> (c <= 2 ^ N.of_nat n)%N ->
  Rf (K * c)%N (rescale o sc x).
Hypothesis Rz_zero : Rz 0%N (n_zero o).
Hypothesis Rz_one : Rz 1%N (n_one o).
Hypothesis Rz_add : forall a0 a1 x0 x1, Rz a0 x0 -> Rz a1 x1 -> (a0 + a1 <= 2 ^ N.of_nat n)%N ->
  Rz (a0 + a1)%N (n_add o x0 x1).
Hypothesis Rz_shift : forall c x, Rz c x -> (c <= 2 ^ N.of_nat n)%N -> Rf (K * c)%N (n_shl o x (vars - n)).

Theorem sat_ref_sim : forall e, counting_kind (s_kind s) -> ref_ok s (eref e) ->
  exists x, sat_ref o s vars e = Some x /\ Rf (exact_count s vars e) x.
Proof.
  intros e Hk Hok. rewrite sat_ref_unfold. unfold finish, scheme_of, start_tag, exact_count.
  destruct Hk as [Hk|[Hk|Hk]]; rewrite Hk.
  - pose proof (sat_bdd_correct s vars (eref e) H Hk Hv Hok) as Hex.
    pose proof (fun Hc => walk_sim_bdd exact_ops o R s R_zero _ _ (R_term _ (or_introl eq_refl))
                  Hc _ _ _ Hex) as Hs.
    destruct Hs as [x [Wx Rx]].
    + intros f id nd e0 e1 a0 a1 x0 x1 E Hc W0 W1 R0 R1.
      destruct (halving_node s vars _ _ H (bdd_halving s H vars) (bdd_binary s Hk) Hv
                  f id false nd e0 e1 a0 a1 E Hc W0 W1) as (Hm & Hq & Hd).
      exact (R_halve a0 a1 x0 x1 _ R0 R1 Hm Hq Hd (cnt_le _ _ _)).
    + rewrite Wx. eexists. split; [reflexivity|].
      exact (R_finish _ _ x (or_introl eq_refl) Rx (cnt_le _ _ _)).
  - pose proof (sat_bcdd_correct s vars e H Hk Hv Hok) as Hex.
    pose proof (fun Hc => walk_sim_bcdd exact_ops o R s R_zero _ _ (R_term _ (or_intror eq_refl))
                  Hc _ _ _ _ Hex) as Hs.
    destruct Hs as [x [Wx Rx]].
    + intros f id nd e0 e1 tag a0 a1 x0 x1 E Hc W0 W1 R0 R1.
      destruct (halving_node s vars _ _ H (bcdd_halving s H vars) (bcdd_binary s Hk) Hv
                  f id tag nd e0 e1 a0 a1 E Hc W0 W1) as (Hm & Hq & Hd).
      exact (R_halve a0 a1 x0 x1 _ R0 R1 Hm Hq Hd (cnt_le _ _ _)).
    + rewrite Wx. eexists. split; [reflexivity|].
      exact (R_finish _ _ x (or_intror eq_refl) Rx (cnt_le _ _ _)).
  - pose proof (paths_zbdd_correct s (eref e) H Hk Hok) as Hex.
    pose proof (fun Hc => walk_sim_zbdd exact_ops o Rz s Rz_zero Rz_one Hc _ _ _ Hex) as Hs.
    destruct Hs as [x [Wx Rx]].
    + intros f id nd e0 e1 a0 a1 x0 x1 E Hc W0 W1 R0 R1.
      destruct (walk_node_std _ s H f id false nd e0 e1 a0 a1 E Hc W0 W1) as (_ & _ & Sn).
      pose proof (paths_zbdd_correct s (RN id) H Hk (ex_intro _ nd E)) as Hn. unfold paths_zbdd in Hn.
      rewrite Hn in Sn. injection Sn as Hq. change (count_levels n (fun_zbdd s (RN id)) = (a0 + a1)%N) in Hq.
      apply Rz_add; try assumption. rewrite <- Hq. apply cnt_le.
    + rewrite Wx. eexists. split; [reflexivity|]. cbn [option_map]. unfold zbdd_shift. fold n.
      destruct (Nat.leb_spec n vars) as [_|X]; [|unfold n in X; lia].
      exact (Rz_shift _ x Rx (cnt_le _ _ _)).
Qed.

End RefSim.

(** a history of counting calls with [vars >= number of levels] *)
Fixpoint counting (qs : list query) : Prop :=
  match qs with
  | [] => True
  | q :: rest => counting_kind (s_kind (q_snap q)) /\ nlevels (q_snap q) <= q_vars q /\ counting rest
  end.

(** Model counting with a reused cache is exact: whatever happened to the
    manager between the calls (under the epoch discipline [hist_ok]), each call
    returns the number of satisfying assignments of its handle over its
    variable count. *)
Theorem run_queries_exact : forall q qs,
  qok q -> hist_ok q qs -> counting (q :: qs) ->
  exists c', run_queries exact_ops (@cache_default N) (q :: qs) =
             Some (map (fun q => exact_count (q_snap q) (q_vars q) (q_edge q)) (q :: qs), c').
Proof.
  intros q qs Hq Hh Hc. apply (run_queries_values exact_ops _ q qs Hq Hh).
  clear Hq Hh. revert Hc. generalize (q :: qs). clear q qs.
  induction l as [|x l IH]; intros Hc; [constructor|]. destruct Hc as [Hk [Hv Hc]].
  constructor; [|exact (IH Hc)]. intros [Hw [_ Hok]]. apply sat_ref_exact; assumption.
Qed.

(** *** Non-vacuity: a history on the example diagram with a reused cache *)

(** [sat_count(3)], [sat_count(3)] again (cache hit on the shared node 2),
    [sat_count(4)] (other [vars]: cleared), then after a collection (epoch 1)
    [sat_count(4)] on the sub-function x2 *)
Definition ex_history : list query :=
  [ mkQuery 0%N ex_sat_bdd 3 (xe (RN 4));
    mkQuery 0%N ex_sat_bdd 3 (xe (RN 3));
    mkQuery 0%N ex_sat_bdd 4 (xe (RN 4));
    mkQuery 1%N ex_sat_bdd 4 (xe (RN 2)) ].

Example ex_history_ok :
  match ex_history with
  | q :: qs => qok q /\ hist_ok q qs /\ counting (q :: qs)
  | [] => False
  end.
Proof.
  assert (W : WF ex_sat_bdd) by (apply wf_b_spec; exact ex_sat_bdd_wf).
  assert (B : binary (s_kind ex_sat_bdd)) by (simpl; discriminate).
  assert (K : counting_kind (s_kind ex_sat_bdd)) by (left; reflexivity).
  assert (R : forall id, In id [2%positive; 3%positive; 4%positive] -> ref_ok ex_sat_bdd (RN id)).
  { intros id [<-|[<-|[<-|[]]]]; simpl; eexists; reflexivity. }
  assert (Q : forall ep vars id, In id [2%positive; 3%positive; 4%positive] ->
            qok (mkQuery ep ex_sat_bdd vars (xe (RN id)))).
  { intros ep vars id Hi. split; [exact W|]. split; [exact B|]. apply R. exact Hi. }
  assert (L : nlevels ex_sat_bdd = 3) by reflexivity.
  unfold ex_history. split; [apply Q; simpl; auto|]. split.
  - simpl. split; [apply Q; simpl; auto|]. split; [intros _; apply same_table_refl|].
    split; [apply Q; simpl; auto|]. split; [intros _; apply same_table_refl|].
    split; [apply Q; simpl; auto|]. split; [intros _; apply same_table_refl|]. exact I.
  - simpl. rewrite L. repeat (split; [exact K|]; split; [lia|]). exact I.
Qed.

Example ex_history_run :
  match run_queries exact_ops (@cache_default N) ex_history with
  | Some (vs, c) => vs = [5; 6; 10; 8]%N /\ c_epoch c = 1%N /\ c_vars c = 4
  | None => False
  end.
Proof. vm_compute. repeat split; reflexivity. Qed.
