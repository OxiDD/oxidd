(** * [sat_count(vars)] with fewer variables than levels

    What the code does when [vars < manager.num_levels()]
    (oxidd-rules-bdd simple/ and complement_edge/apply_rec.rs: nothing special,
    the terminal value is [2^vars] and every node halves; oxidd-rules-zbdd:
    [count >> (levels - vars)]) is part of the model DD/SatCount.v.  The
    theorems of DD/SatCountProofs.v assume [nlevels <= vars].  Here, for EVERY
    [vars]:

    - BDD / BCDD: if no path below the edge visits more than [vars] inner nodes
      ([height <= vars]; in a reduced diagram a path tests distinct variables of
      the function's support, so this holds whenever the function depends on at
      most [vars] variables), every halving is exact and the result [v]
      satisfies [v * 2^levels = 2^vars * #models over the levels]: the number
      of satisfying assignments over any [vars] variables that contain the
      support ([walk_small] of DD/SatCountProofs.v).  For [nlevels <= vars] the
      hypothesis always holds and the statement is [sat_bdd_correct].
    - ZBDD: the result is [#models / 2^(levels - vars)], exact iff that power
      of two divides the number of models (i.e. the function does not depend
      on [levels - vars] of the variables).

    Beyond these conditions the number "of satisfying assignments over [vars]
    variables" is not defined; the code then truncates ([Saturating]), yields
    the error value ([Natural]: inexact right shift) or a fraction ([F64]) --
    the model does the same, compared by the correspondence run only. *)
From Coq Require Import List NArith PArith Bool Arith Lia FMapPositive.
From OxiVerif Require Import DD.Table DD.TableExtra DD.TableProofs DD.SatCount DD.SatCountProofs DD.SatQueryProofs.
From OxiVerif Require Import DD.SatCache.
Import ListNotations.

Arguments N.add : simpl never.
Arguments N.sub : simpl never.
Arguments N.mul : simpl never.
Arguments N.div : simpl never.
Arguments N.modulo : simpl never.
Arguments N.pow : simpl never.

Local Open Scope N_scope.

(** * BDD *)
Theorem sat_bdd_small_vars : forall s vars r, WF s -> s_kind s = KBdd -> ref_ok s r ->
  (height_of s r <= vars)%nat ->
  exists v, sat_bdd s (S (nlevels s)) vars r = Some v /\
    v * 2 ^ N.of_nat (nlevels s) = 2 ^ N.of_nat vars * count_levels (nlevels s) (fun_bdd s r).
Proof.
  intros s vars r H Hk Hok Hh.
  destruct (walk_small s vars _ _ H (bdd_halving s H vars) (bdd_binary s Hk) (S (nlevels s)) r false
              Hok ltac:(lia) Hh) as [v [W [T _]]].
  exists v. split; [exact W | exact T].
Qed.

(** * BCDD *)
Theorem sat_bcdd_small_vars : forall s vars e, WF s -> s_kind s = KBcdd -> ref_ok s (eref e) ->
  (height_of s (eref e) <= vars)%nat ->
  exists v, sat_bcdd s (S (nlevels s)) vars e = Some v /\
    v * 2 ^ N.of_nat (nlevels s) = 2 ^ N.of_nat vars * count_levels (nlevels s) (fun_bcdd s e).
Proof.
  intros s vars e H Hk Hok Hh.
  destruct (walk_small s vars _ _ H (bcdd_halving s H vars) (bcdd_binary s Hk) (S (nlevels s)) (eref e) (etag e)
              Hok ltac:(lia) Hh) as [v [W [T _]]].
  exists v. split; [exact W|]. rewrite T. unfold Fc. rewrite edge_eta. reflexivity.
Qed.

(** * ZBDD: [count >> (levels - vars)] *)
Theorem sat_zbdd_small_vars : forall s vars r, WF s -> s_kind s = KZbdd -> ref_ok s r ->
  (vars < nlevels s)%nat ->
  sat_zbdd s (S (nlevels s)) vars r =
  Some (count_levels (nlevels s) (fun_zbdd s r) / 2 ^ N.of_nat (nlevels s - vars)).
Proof.
  intros s vars r H Hk Hok Hv. unfold sat_zbdd. rewrite (paths_zbdd_correct s r H Hk Hok).
  simpl option_map. unfold zbdd_shift.
  destruct (Nat.leb_spec (nlevels s) vars) as [X|_]; [lia|]. reflexivity.
Qed.

(** ... which is exact iff the power of two divides the number of models *)
Corollary sat_zbdd_small_vars_exact : forall s vars r v, WF s -> s_kind s = KZbdd -> ref_ok s r ->
  (vars < nlevels s)%nat ->
  sat_zbdd s (S (nlevels s)) vars r = Some v ->
  (v * 2 ^ N.of_nat (nlevels s - vars) = count_levels (nlevels s) (fun_zbdd s r) <->
   count_levels (nlevels s) (fun_zbdd s r) mod 2 ^ N.of_nat (nlevels s - vars) = 0).
Proof.
  intros s vars r v H Hk Hok Hv E. rewrite (sat_zbdd_small_vars s vars r H Hk Hok Hv) in E.
  injection E as E. subst v. set (c := count_levels (nlevels s) (fun_zbdd s r)). set (p := 2 ^ N.of_nat (nlevels s - vars)).
  assert (Hp : p <> 0) by (apply N.pow_nonzero; discriminate).
  pose proof (N.div_mod c p Hp) as Hd. pose proof (N.mod_lt c p Hp). split; intros X; lia.
Qed.

(** * The query level: [sat_ref] in exact arithmetic for every [vars] *)
Theorem sat_ref_small_vars : forall s vars e, WF s -> s_kind s = KBdd \/ s_kind s = KBcdd ->
  ref_ok s (eref e) -> (height_of s (eref e) <= vars)%nat ->
  exists v, sat_ref exact_ops s vars e = Some v /\
    v * 2 ^ N.of_nat (nlevels s) =
    2 ^ N.of_nat vars * count_levels (nlevels s) (match s_kind s with KBcdd => fun_bcdd s e | _ => fun_bdd s (eref e) end).
Proof.
  intros s vars e H [Hk|Hk] Hok Hh; unfold sat_ref; rewrite Hk, terminal_val_exact.
  - destruct (sat_bdd_small_vars s vars (eref e) H Hk Hok Hh) as [v [W T]]. unfold sat_bdd in W.
    exists v. rewrite W. split; [reflexivity | exact T].
  - destruct (sat_bcdd_small_vars s vars e H Hk Hok Hh) as [v [W T]]. unfold sat_bcdd in W.
    exists v. rewrite W. simpl option_map. split; [|exact T].
    f_equal. unfold rescale, scaled_bcdd. simpl. change (2 ^ 0) with 1. lia.
Qed.

(** for [vars] below the number of levels: the count over the levels divided
    by [2^(levels - vars)], without remainder *)
Corollary sat_ref_small_vars_quotient : forall s vars e v, WF s -> s_kind s = KBdd \/ s_kind s = KBcdd ->
  ref_ok s (eref e) -> (height_of s (eref e) <= vars)%nat -> (vars <= nlevels s)%nat ->
  sat_ref exact_ops s vars e = Some v ->
  v * 2 ^ N.of_nat (nlevels s - vars) =
  count_levels (nlevels s) (match s_kind s with KBcdd => fun_bcdd s e | _ => fun_bdd s (eref e) end).
Proof.
  intros s vars e v H Hk Hok Hh Hv E.
  destruct (sat_ref_small_vars s vars e H Hk Hok Hh) as [v' [E' T]]. rewrite E in E'. injection E' as <-.
  rewrite <- (pow2_sub (nlevels s) vars Hv) in T.
  assert (Hp : 2 ^ N.of_nat vars <> 0) by (apply N.pow_nonzero; discriminate).
  apply (N.mul_cancel_l _ _ _ Hp). lia.
Qed.

Local Close Scope N_scope.

(** non-vacuity: (x0 /\ x1) \/ x2 has height 3 on three levels; its sub-function
    x2 (node 2, height 1) counted over one and two variables; with [vars = 2]
    the root is outside the hypothesis and the halvings truncate (5/2 = 2.5) *)
Example ex_small_vars :
  height_of ex_sat_bdd (RN 4) = 3 /\ height_of ex_sat_bdd (RN 2) = 1 /\
  sat_ref exact_ops ex_sat_bdd 1 (xe (RN 2)) = Some 1%N /\
  sat_ref exact_ops ex_sat_bdd 2 (xe (RN 2)) = Some 2%N /\
  sat_ref exact_ops ex_sat_bdd 2 (xe (RN 4)) = Some 2%N /\
  sat_ref exact_ops ex_sat_zbdd 2 (xe (RN 6)) = Some 2%N.
Proof. vm_compute. repeat split; reflexivity. Qed.
