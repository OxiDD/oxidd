(** Facts about the association lists of [DD.Sem] that the proofs of several
    diagram kinds share. *)
From Coq Require Import List Arith.
From OxiVerif Require Import DD.Sem.
Import ListNotations.

Lemma assoc_nat_notin : forall (A : Type) (l : list (nat * A)) k, ~ In k (map fst l) -> assoc_nat l k = None.
Proof.
  intros A l k. induction l as [|[a b] r IH]; intros Hn; [reflexivity|]. simpl in *.
  destruct (Nat.eqb_spec a k) as [E|E]; [exfalso; apply Hn; left; exact E|].
  apply IH. intro Hi. apply Hn. right. exact Hi.
Qed.
