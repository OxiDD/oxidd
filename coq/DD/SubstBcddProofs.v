(** * Soundness of [csubstitute_prepare] / [csubstitute] / [csubstitute_edge]
      (complement-edge kind)

    As DD/SubstProofs.v, with edges: [cprepare_ok] (the level-indexed vector
    agrees with the substitution object, [SvOKC]), [csubstitute_ok] (the
    result denotes the simultaneous substitution [psubstC]; entries cached
    under, and served only for, the object's id), [csubstitute_edge_ok],
    [qcacheokc_register], [cfresh_id_no_entry]. *)

From Coq Require Import List NArith PArith Bool Arith Lia FMapPositive.
From OxiVerif Require Import DD.Table DD.TableProofs DD.Canon DD.CanonBcdd DD.Sem DD.Build DD.BuildProofs
  DD.Apply DD.ApplyProofs DD.ApplyBcdd DD.ApplyBcddProofs DD.ApplyBcddIte
  DD.Quant DD.QuantLemmas DD.QuantProofs DD.SubstProofs DD.QuantBcdd DD.QuantBcddLemmas.
Import ListNotations.

Lemma cs_psC : forall s sv pairs phi, SvOKC s sv pairs -> cext phi ->
  forall c, bchoice c -> csubstC s sv phi c = psubstC s pairs phi c.
Proof.
  intros s sv pairs phi [_ [_ E]] X c Hc. unfold csubstC, psubstC.
  apply X; [apply schC_bchoice; exact Hc | apply pschC_bchoice; exact Hc | apply E; exact Hc].
Qed.

(** ** [csubstitute_prepare] *)

Definition cslot_at (l : list (option edge)) (i : nat) : option edge :=
  match nth_error l i with Some (Some r) => Some r | _ => None end.

Fixpoint cplook (s : snap) (pairs : list (nat * edge)) (l : nat) : option edge :=
  match pairs with
  | [] => None
  | (v, r) :: rest =>
    match cplook s rest l with
    | Some x => Some x
    | None =>
      match nth_error (s_v2l s) v with
      | Some lv => if Nat.eqb lv l then Some r else None
      | None => None
      end
    end
  end.

Lemma cprepare_slots_ok : forall s pairs acc, WF s ->
  (forall v r, In (v, r) pairs -> v < nlevels s) -> length acc <= nlevels s ->
  exists slots, cprepare_slots s pairs acc = Some slots /\ length slots <= nlevels s /\
    forall l, cslot_at slots l = match cplook s pairs l with Some x => Some x | None => cslot_at acc l end.
Proof. exact (gprepare_slots_ok edge). Qed.

Lemma get_or_insert_untagged : forall s lvl ch s' r, get_or_insert s lvl ch = (s', r) -> etag r = false.
Proof.
  intros s lvl ch s' r. unfold get_or_insert. destruct (find_dup s lvl ch); intros E; inversion E; reflexivity.
Qed.

(** the variable of a level as a node *)
Lemma cvar_node_ok : forall s lvl t1 t0 s' e, BcOK s -> lvl < nlevels s ->
  cget_terminal s true = Some t1 -> cget_terminal s false = Some t0 ->
  get_or_insert s lvl [t1; t0] = (s', e) ->
  BcOK s' /\ extends s s' /\ DenC s' e (fun c => Nat.eqb (c lvl) 0).
Proof.
  intros s lvl t1 t0 s' e B Hlvl T1 T0 Eg.
  destruct (cget_terminal_den s true B) as [t [Et Dt]]. rewrite T1 in Et. inversion Et; subst t.
  destruct (cget_terminal_den s false B) as [f [Ef Df]]. rewrite T0 in Ef. inversion Ef; subst f.
  assert (Htf : t1 <> t0).
  { intros ->. pose proof (denc_unique s t0 _ _ Dt Df (fun _ => 0) ltac:(intros l; simpl; lia)). discriminate. }
  assert (Tt : etag t1 = false).
  { unfold cget_terminal in T1. destruct (bc_term_id s); inversion T1. reflexivity. }
  assert (Hmk : cmk_node s lvl t1 t0 = (s', mkEdge (eref e) false)).
  { unfold cmk_node. destruct (edge_eqb t1 t0) eqn:Eq; [apply edge_eqb_true in Eq; contradiction|].
    rewrite Tt, Eg. reflexivity. }
  assert (I1 : indep (fun _ : nat -> nat => true) (S lvl)) by (intros x y _ _ _; reflexivity).
  assert (I0 : indep (fun _ : nat -> nat => false) (S lvl)) by (intros x y _ _ _; reflexivity).
  destruct (cnode_step s lvl t1 t0 _ _ s' _ B Hlvl Dt Df I1 I0 Hmk) as [B' [X D]].
  split; [exact B'|]. split; [exact X|].
  assert (Ee : mkEdge (eref e) false = e).
  { rewrite <- (get_or_insert_untagged s lvl _ s' e Eg). apply edge_eta. }
  rewrite Ee in D. apply (denc_ext s' e _ _ D). intros c _. destruct (Nat.eqb (c lvl) 0); reflexivity.
Qed.

Lemma cprepare_fill_ok : forall slots s level, BcOK s -> level + length slots <= nlevels s ->
  (forall i r, nth_error slots i = Some (Some r) -> ref_ok s (eref r)) ->
  exists s' sv, cprepare_fill s slots level = Some (s', sv) /\ BcOK s' /\ extends s s' /\
    Forall (fun e => ref_ok s' (eref e)) sv /\
    gfilled edge (fun l r => DenC s' r (fun c => Nat.eqb (c l) 0)) level slots sv.
Proof.
  induction slots as [|[e|] rest IH]; intros s level B Hlen Hok; simpl in Hlen |- *.
  - exists s, []. split; [reflexivity|]. split; [exact B|]. split; [apply extends_refl|]. split; constructor.
  - destruct (IH s (S level) B ltac:(lia)) as [s' [sv [E [B' [X [F G]]]]]].
    { intros i r Hi. apply (Hok (S i) r). exact Hi. }
    rewrite E. exists s', (e :: sv). split; [reflexivity|]. split; [exact B'|]. split; [exact X|].
    split; [constructor; [apply (ext_ref_ok _ _ _ X); apply (Hok 0 e); reflexivity | exact F]
           | constructor; exact G].
  - destruct (cget_terminal_den s true B) as [t1 [T1 _]]. destruct (cget_terminal_den s false B) as [t0 [T0 _]].
    rewrite T1, T0.
    destruct (get_or_insert s level [t1; t0]) as [s1 e] eqn:Eg.
    destruct (cvar_node_ok s level t1 t0 s1 e B ltac:(lia) T1 T0 Eg) as [B1 [X1 D1]].
    destruct (IH s1 (S level) B1) as [s' [sv [E [B' [X [F G]]]]]].
    { rewrite (ext_nlevels _ _ X1). lia. }
    { intros i r Hi. apply (ext_ref_ok _ _ _ X1). apply (Hok (S i) r). exact Hi. }
    rewrite E. pose proof (denc_extends s1 s' _ _ B1 X D1) as D'.
    exists s', (e :: sv). split; [reflexivity|]. split; [exact B'|].
    split; [eapply extends_trans; eauto|].
    split; [constructor; [apply (proj1 D') | exact F] | constructor; [exact D' | exact G]].
Qed.

Theorem cprepare_ok : forall s pairs, BcOK s -> NoDup (map fst pairs) ->
  (forall v r, In (v, r) pairs -> v < nlevels s /\ ref_ok s (eref r)) ->
  exists s0 sv, csubstitute_prepare s pairs = Some (s0, sv) /\ BcOK s0 /\ extends s s0 /\
    SvOKC s0 sv pairs.
Proof.
  intros s pairs B Hnd Hp. pose proof (bc_wf s B) as H. unfold csubstitute_prepare.
  assert (Hv : forall v r, In (v, r) pairs -> v < nlevels s) by (intros v r Hin; apply (Hp v r Hin)).
  destruct (cprepare_slots_ok s pairs [] H Hv ltac:(simpl; lia)) as [slots [E [Hlen Hs]]].
  rewrite E.
  assert (Hs' : forall l, cslot_at slots l = cplook s pairs l).
  { intros l. rewrite Hs. destruct (cplook s pairs l); [reflexivity|].
    unfold cslot_at. destruct l; reflexivity. }
  clear Hs.
  assert (Hslot : forall i r, nth_error slots i = Some (Some r) -> cplook s pairs i = Some r).
  { intros i r Hi. rewrite <- Hs'. unfold cslot_at. rewrite Hi. reflexivity. }
  destruct (cprepare_fill_ok slots s 0 B ltac:(lia)) as [s0 [sv [Ef [B0 [X [F G]]]]]].
  { intros i r Hi. destruct (gplook_In edge s pairs i r (Hslot i r Hi)) as [v Hin]. apply (Hp v r Hin). }
  destruct (gfilled_nth edge _ _ _ _ G) as [Hl Hfill].
  rewrite Ef. exists s0, sv. split; [reflexivity|]. split; [exact B0|]. split; [exact X|].
  split; [exact F|].
  split; [intros v r Hin; apply (ext_ref_ok _ _ _ X); apply (Hp v r Hin)|].
  intros c Hc l. unfold schC, pschC. rewrite (ext_l2v _ _ X).
  specialize (Hfill l). pose proof (Hs' l) as Hs. unfold cslot_at in Hs.
  destruct (nth_error (s_l2v s) l) as [v|] eqn:El.
  - rewrite <- (gplook_assoc edge s pairs l v H Hnd Hv El : cplook s pairs l = assoc_nat pairs v).
    destruct (nth_error slots l) as [[r|]|] eqn:Esl.
    + rewrite Hfill, <- Hs. reflexivity.
    + destruct Hfill as [r [Er Dr]]. rewrite Er, <- Hs.
      rewrite (dfunC_den s0 r _ Dr c Hc). simpl.
      pose proof (Hc l). destruct (c l) as [|[|k]]; [reflexivity | reflexivity | lia].
    + assert (Hsv : nth_error sv l = None).
      { apply nth_error_None. rewrite Hl. apply nth_error_None. exact Esl. }
      rewrite Hsv, <- Hs. reflexivity.
  - assert (Hsv : nth_error sv l = None).
    { apply nth_error_None. rewrite Hl. apply nth_error_None in El. unfold nlevels in Hlen. lia. }
    rewrite Hsv. reflexivity.
Qed.

Section S.
Variable lt : edge -> edge -> bool.
Variable C : Type.
Variable cget : C -> N -> list edge -> option edge.
Variable cadd : C -> N -> list edge -> edge -> C.
Hypothesis Hlossy : lossyC cget cadd.
Variable Sg : N -> option (list (nat * edge)).

Notation QOKC := (QCacheOKC cget Sg).
Notation qcres := (qcresult_ok cget Sg).

Lemma csubstitute_S : forall n s c f subst id,
  csubstitute lt C cget cadd (S n) s c f subst id =
    match eref f with
    | RT _ => Some (s, c, f)
    | RN fid =>
      match find_node s fid with
      | None => None
      | Some fnode =>
        let level := nstored fnode in
        if Nat.leb (length subst) level then Some (s, c, f)
        else
          match cget c (ccode_subst id) [f] with
          | Some h => Some (s, c, h)
          | None =>
            match ccofs (etag f) fnode with
            | Some (ft, fe) =>
              match csubstitute lt C cget cadd n s c ft subst id with
              | None => None
              | Some (s1, c1, t) =>
                match csubstitute lt C cget cadd n s1 c1 fe subst id with
                | None => None
                | Some (s2, c2, e) =>
                  match nth_error subst level with
                  | None => None
                  | Some r =>
                    match capply_ite lt C cget cadd (S (nlevels s2)) s2 c2 r t e with
                    | None => None
                    | Some (s3, c3, res) => Some (s3, cadd c3 (ccode_subst id) [f] res, res)
                    end
                  end
                end
              end
            | None => None
            end
          end
      end
    end.
Proof. reflexivity. Qed.

Theorem csubstitute_ok_c : forall fuel s c f sv id pairs phi,
  BcOK s -> QOKC s c -> DenC s f phi -> SvOKC s sv pairs -> Sg id = Some pairs ->
  nlevels s - rlevel s (eref f) < fuel ->
  qcres s (csubstitute lt C cget cadd fuel s c f sv id) (csubstC s sv phi).
Proof.
  induction fuel as [|n IH]; intros s c f sv id pairs phi B Q D SV Es Hfuel; [lia|].
  pose proof (bc_wf s B) as H. pose proof (denc_cext s f phi H D) as Xp.
  rewrite csubstitute_S. destruct (eref f) as [tf|fid] eqn:Erf.
  { apply (qcresult_ok_here C cget Sg s c _ _ B Q). apply (denc_ext s _ phi _ D).
    intros c0 Hc. unfold csubstC. apply (denc_term_const s f tf phi _ _ D Erf Hc). apply schC_bchoice. exact Hc. }
  pose proof (proj1 D) as Of. rewrite Erf in Of. destruct Of as [fnd Ef]. rewrite Ef. cbv zeta.
  rewrite (wf_stored s H fid fnd Ef).
  rewrite (rlevel_node s fid fnd Ef) in Hfuel.
  destruct (denc_node s f fid fnd phi B D Erf Ef) as [Hlv [Ip [a [b [Ech [Dft [Dfe [Lft Lfe]]]]]]]].
  set (lvl := nlevel fnd) in *.
  destruct (Nat.leb_spec (length sv) lvl) as [Hlen|Hlen].
  { apply (qcresult_ok_here C cget Sg s c _ _ B Q). apply (denc_ext s _ phi _ D).
    intros c0 Hc. apply (gsch_beyond edge (dfunC s) sv phi lvl c0 Ip Hlen Hc). }
  destruct (cget c (ccode_subst id) [f]) as [h|] eqn:Ecache.
  { destruct (proj2 (proj2 (proj2 (proj2 Q _ _ _ Ecache))) id f eq_refl eq_refl)
      as [pairs0 [phi0 [Es0 [_ [D0 Dh]]]]].
    rewrite Es in Es0. inversion Es0; subst pairs0.
    apply (qcresult_ok_here C cget Sg s c _ _ B Q). apply (denc_ext s h _ _ Dh).
    intros c0 Hc. rewrite (cs_psC s sv pairs phi SV Xp c0 Hc).
    apply psubstC_ext; [|exact Hc]. apply (denc_unique s _ phi0 phi D0 D). }
  unfold ccofs. rewrite Ech.
  set (ft := retag (etag f) a) in *. set (fe := retag (etag f) b) in *.
  refine (qcresult_ok_bind C cget Sg s _ _ _ _ (IH s c ft sv id pairs _ B Q Dft SV Es ltac:(simpl; lia)) _).
  intros s1 c1 t B1 X1 Q1 D1.
  refine (qcresult_ok_bind C cget Sg s1 _ _ _ _
            (IH s1 c1 fe sv id pairs _ B1 Q1 (denc_extends s s1 _ _ B X1 Dfe)
                (svokc_extends s s1 sv pairs H X1 SV) Es
                (fuel_extends s s1 _ n X1 (proj1 Dfe) ltac:(simpl; lia))) _).
  intros s2 c2 e B2 X2 Q2 D2.
  assert (X02 : extends s s2) by (eapply extends_trans; eauto).
  destruct (nth_error sv lvl) as [r|] eqn:Er; [|apply nth_error_None in Er; lia].
  assert (Or : ref_ok s (eref r)).
  { destruct SV as [F _]. rewrite Forall_forall in F. apply F. eapply nth_error_In; eauto. }
  assert (D2' : DenC s2 e (csubstC s sv (cofn phi lvl 1))).
  { apply (denc_ext s2 e _ _ D2). intros c0 Hc.
    apply (csubstC_extends s s1 sv _ H X1 (proj1 SV)); [apply cext_cofn; [exact Xp | lia] | exact Hc]. }
  apply (qcresult_ok_cached C cget cadd Hlossy Sg s2 _ _ _ _); [|unfold ccode_subst; lia|].
  - apply (qcresult_ok_ext C cget Sg s2 _ _ _
             (qc_apply_ite lt C cget cadd Hlossy Sg s2 c2 r t e _ _ _ B2 Q2
                (denc_extends s s2 _ _ B X02 (den_dfunC s r B Or)) (denc_extends s1 s2 _ _ B1 X2 D1) D2')).
    intros c0 Hc. apply (gsch_shannon edge (dfunC s) sv phi lvl r c0 Xp Hc Er).
  - intros s' res X Dres. assert (X' : extends s s') by (eapply extends_trans; eauto).
    apply (cqentry_subst Sg s' id f res pairs phi Es (pairs_okC_extends s s' pairs X' (proj1 (proj2 SV)))
             (denc_extends s s' _ _ B X' D)).
    apply (denc_ext s' res _ _ Dres). intros c0 Hc.
    rewrite (cs_psC s sv pairs phi SV Xp c0 Hc). symmetry.
    apply (psubstC_extends s s' pairs phi H X' (proj1 (proj2 SV)) Xp c0 Hc).
Qed.

Theorem csubstitute_ok : forall fuel s c f sv id pairs phi,
  BcOK s -> QOKC s c -> DenC s f phi -> SvOKC s sv pairs -> Sg id = Some pairs ->
  nlevels s - rlevel s (eref f) < fuel ->
  qcres s (csubstitute lt C cget cadd fuel s c f sv id) (psubstC s pairs phi).
Proof.
  intros fuel s c f sv id pairs phi B Q D SV Es Hfuel.
  apply (qcresult_ok_ext C cget Sg s _ (csubstC s sv phi)).
  - apply (csubstitute_ok_c fuel s c f sv id pairs phi B Q D SV Es Hfuel).
  - intros c0 Hc. apply cs_psC; [exact SV | apply (denc_cext s f phi (bc_wf s B) D) | exact Hc].
Qed.

Theorem csubstitute_edge_ok : forall s c f pairs id phi,
  BcOK s -> QOKC s c -> DenC s f phi -> NoDup (map fst pairs) ->
  (forall v r, In (v, r) pairs -> v < nlevels s /\ ref_ok s (eref r)) -> Sg id = Some pairs ->
  qcres s (csubstitute_edge lt C cget cadd s c f pairs id) (psubstC s pairs phi).
Proof.
  intros s c f pairs id phi B Q D Hnd Hp Es. pose proof (bc_wf s B) as H.
  unfold csubstitute_edge.
  destruct (cprepare_ok s pairs B Hnd Hp) as [s0 [sv [Ep [B0 [X0 SV]]]]]. rewrite Ep.
  pose proof (denc_extends s s0 _ _ B X0 D) as D0.
  pose proof (rlevel_le s0 (bc_wf s0 B0) (eref f)) as Hle.
  destruct (csubstitute_ok (S (nlevels s0)) s0 c f sv id pairs phi B0
              (qcacheokc_extends C cget Sg s s0 c B X0 Q) D0 SV Es ltac:(lia))
    as [s' [c' [r [E [B' [X' [Q' D']]]]]]].
  exists s', c', r. split; [exact E|]. split; [exact B'|].
  split; [eapply extends_trans; eauto|]. split; [exact Q'|].
  apply (denc_ext s' r _ _ D'). intros c0 Hc.
  apply (psubstC_extends s s0 pairs phi H X0); [|apply (denc_cext s f phi H D) | exact Hc].
  intros v r0 Hin. apply (Hp v r0 Hin).
Qed.

End S.

(** ** Fresh ids *)

Definition csg_add (Sg : N -> option (list (nat * edge))) (id : N) (pairs : list (nat * edge))
  : N -> option (list (nat * edge)) :=
  fun i => if N.eqb i id then Some pairs else Sg i.

Theorem qcacheokc_register : forall C (cget : C -> N -> list edge -> option edge) Sg s c id pairs,
  QCacheOKC cget Sg s c -> Sg id = None -> QCacheOKC cget (csg_add Sg id pairs) s c.
Proof.
  intros C cget Sg s c id pairs [O Q] Hfresh. split; [exact O|].
  intros code args r E. destruct (Q code args r E) as [Q1 [Q2 [Q3 Q4]]].
  split; [exact Q1|]. split; [exact Q2|]. split; [exact Q3|].
  intros id' f Hc Ha. destruct (Q4 id' f Hc Ha) as [pairs0 [phi [Es R]]].
  exists pairs0, phi. split; [|exact R]. unfold csg_add.
  destruct (N.eqb_spec id' id) as [->|]; [congruence | exact Es].
Qed.

Theorem cfresh_id_no_entry : forall C (cget : C -> N -> list edge -> option edge) Sg s c id f r,
  QCacheOKC cget Sg s c -> Sg id = None -> cget c (ccode_subst id) [f] = Some r -> False.
Proof.
  intros C cget Sg s c id f r [_ Q] Hfresh E.
  destruct (proj2 (proj2 (proj2 (Q _ _ _ E))) id f eq_refl eq_refl) as [pairs0 [phi [Es _]]].
  congruence.
Qed.
