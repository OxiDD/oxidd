(** * Soundness of [substitute_prepare] / [substitute] / [substitute_edge] of DD/Quant.v

    - [prepare_ok]: the level-indexed vector built from the pairs of a
      substitution object (distinct variables) agrees with the object
      ([SvOK]): listed levels carry their replacement, unlisted levels below
      the vector's length the variable of that level (= identity), levels
      beyond are untouched by [substitute];
    - [substitute_ok]: the result denotes the simultaneous substitution
      ([psubst]) for every cache satisfying [QCacheOK] w.r.t. a registry [Sg] of
      substitution objects in which the id used belongs to these pairs; cache
      entries are stored under, and only served for, that id
      ([code_subst_inj], the clause of [qentry_ok] for [code_subst]);
    - [qcacheok_register]: registering a new object under an id the registry
      does not know keeps the invariant (fresh ids). *)

From Coq Require Import List NArith PArith Bool Arith Lia FMapPositive.
From OxiVerif Require Import DD.Table DD.TableProofs DD.Canon DD.Sem DD.SemFacts DD.Build DD.BuildProofs
  DD.Apply DD.ApplyProofs DD.Quant DD.QuantLemmas DD.QuantProofs.
Import ListNotations.

Lemma den_term_const : forall s t phi c c', Den s (RT t) phi -> bchoice c -> bchoice c' -> phi c = phi c'.
Proof.
  intros s t phi c c' [_ D] Hc Hc'. apply b2c_inj.
  pose proof (D c Hc) as A. pose proof (D c' Hc') as A'. rewrite semk_T in A, A'. congruence.
Qed.

Lemma cs_ps : forall s sv pairs phi, SvOK s sv pairs -> cext phi ->
  forall c, bchoice c -> csubst s sv phi c = psubst s pairs phi c.
Proof.
  intros s sv pairs phi [_ [_ E]] X c Hc. unfold csubst, psubst.
  apply X; [apply sch_bchoice; exact Hc | apply psch_bchoice; exact Hc | apply E; exact Hc].
Qed.

(** ** [substitute_prepare]

    The first loop only moves replacements around, so it is treated for an
    arbitrary type [A] of replacements; at [ref] / [edge] the functions below
    are [set_slot] / [prepare_slots] of DD/Quant.v and [cset_slot] /
    [cprepare_slots] of DD/QuantBcdd.v (by conversion). *)

Section Slots.
Variable A : Type.

Fixpoint gset_slot (l : list (option A)) (i : nat) (x : A) : list (option A) :=
  match i, l with
  | O, [] => [Some x]
  | O, _ :: r => Some x :: r
  | S k, [] => None :: gset_slot [] k x
  | S k, y :: r => y :: gset_slot r k x
  end.

Fixpoint gprepare_slots (s : snap) (pairs : list (nat * A)) (acc : list (option A))
  : option (list (option A)) :=
  match pairs with
  | [] => Some acc
  | (v, r) :: rest =>
    match nth_error (s_v2l s) v with
    | Some lvl => gprepare_slots s rest (gset_slot acc lvl r)
    | None => None
    end
  end.

Definition gslot_at (l : list (option A)) (i : nat) : option A :=
  match nth_error l i with Some (Some r) => Some r | _ => None end.

(** the replacement the object lists for level [l] (a later pair overwrites an earlier one) *)
Fixpoint gplook (s : snap) (pairs : list (nat * A)) (l : nat) : option A :=
  match pairs with
  | [] => None
  | (v, r) :: rest =>
    match gplook s rest l with
    | Some x => Some x
    | None =>
      match nth_error (s_v2l s) v with
      | Some lv => if Nat.eqb lv l then Some r else None
      | None => None
      end
    end
  end.

Lemma gslot_at_set : forall lvl acc r i,
  gslot_at (gset_slot acc lvl r) i = if Nat.eqb i lvl then Some r else gslot_at acc i.
Proof.
  induction lvl as [|k IH]; intros [|y rest] r [|j]; simpl; try reflexivity.
  - unfold gslot_at. simpl. destruct j; reflexivity.
  - unfold gslot_at at 1. simpl. fold (gslot_at (gset_slot [] k r) j). rewrite IH.
    unfold gslot_at. simpl. destruct j; reflexivity.
  - unfold gslot_at at 1. simpl. fold (gslot_at (gset_slot rest k r) j). rewrite IH. reflexivity.
Qed.

Lemma length_gset_slot : forall lvl acc r, length (gset_slot acc lvl r) = Nat.max (length acc) (S lvl).
Proof.
  induction lvl as [|k IH]; intros [|y rest] r; simpl; try reflexivity.
  - lia.
  - rewrite IH. simpl. lia.
  - rewrite IH. lia.
Qed.

Lemma gprepare_slots_ok : forall s pairs acc, WF s ->
  (forall v r, In (v, r) pairs -> v < nlevels s) -> length acc <= nlevels s ->
  exists slots, gprepare_slots s pairs acc = Some slots /\ length slots <= nlevels s /\
    forall l, gslot_at slots l = match gplook s pairs l with Some x => Some x | None => gslot_at acc l end.
Proof.
  intros s pairs acc H. revert acc. induction pairs as [|[v r] rest IH]; intros acc Hv Hlen.
  - exists acc. split; [reflexivity|]. split; [exact Hlen | reflexivity].
  - simpl. assert (Hvl : v < length (s_v2l s)).
    { rewrite (wf_perm_len s H). apply (Hv v r). left. reflexivity. }
    destruct (wf_perm_v2l s H v Hvl) as [lv [E1 E2]]. rewrite E1.
    assert (Hlv : lv < nlevels s) by (unfold nlevels; apply nth_error_Some; congruence).
    destruct (IH (gset_slot acc lv r)) as [slots [E [Hl Hs]]].
    + intros v' r' Hin. apply (Hv v' r'). right. exact Hin.
    + rewrite length_gset_slot. lia.
    + exists slots. split; [exact E|]. split; [exact Hl|]. intros l. rewrite Hs.
      destruct (gplook s rest l); [reflexivity|]. rewrite gslot_at_set, (Nat.eqb_sym lv l).
      destruct (Nat.eqb l lv); reflexivity.
Qed.

(** with distinct variables the level-wise lookup is the variable-wise lookup *)
Lemma gplook_assoc : forall s pairs l v, WF s -> NoDup (map fst pairs) ->
  (forall v' r, In (v', r) pairs -> v' < nlevels s) ->
  nth_error (s_l2v s) l = Some v -> gplook s pairs l = assoc_nat pairs v.
Proof.
  intros s pairs l v H. induction pairs as [|[v0 r0] rest IH]; intros Hnd Hv El; [reflexivity|].
  simpl in *. inversion Hnd as [|? ? Hn0 Hnd']; subst.
  assert (Hv' : forall v' r, In (v', r) rest -> v' < nlevels s) by (intros v' r Hin; apply (Hv v' r); right; exact Hin).
  rewrite (IH Hnd' Hv' El).
  assert (Hl : l < length (s_l2v s)) by (apply nth_error_Some; congruence).
  destruct (wf_perm_l2v s H l Hl) as [v' [F1 F2]]. rewrite El in F1. inversion F1; subst v'.
  destruct (Nat.eqb_spec v0 v) as [->|Hne].
  - rewrite (assoc_nat_notin _ rest v Hn0), F2, Nat.eqb_refl. reflexivity.
  - destruct (assoc_nat rest v); [reflexivity|].
    assert (Hv0 : v0 < length (s_v2l s))
      by (rewrite (wf_perm_len s H); apply (Hv v0 r0); left; reflexivity).
    destruct (wf_perm_v2l s H v0 Hv0) as [l0 [G1 G2]]. rewrite G1.
    destruct (Nat.eqb_spec l0 l) as [->|]; [|reflexivity].
    rewrite El in G2. congruence.
Qed.

Lemma gplook_In : forall s pairs l r, gplook s pairs l = Some r -> exists v, In (v, r) pairs.
Proof.
  intros s pairs l r. induction pairs as [|[v0 r0] rest IH]; simpl; [discriminate|].
  destruct (gplook s rest l) as [x|].
  - intros E. inversion E; subst. destruct (IH eq_refl) as [v Hin]. exists v. right. exact Hin.
  - destruct (nth_error (s_v2l s) v0) as [l0|]; [|discriminate].
    destruct (Nat.eqb l0 l); [|discriminate]. intros E. inversion E; subst. exists v0. left. reflexivity.
Qed.

(** the vector the second loop makes of the slots: listed entries are kept, an
    empty slot at level [l] is filled with something satisfying [P l] *)
Inductive gfilled (P : nat -> A -> Prop) : nat -> list (option A) -> list A -> Prop :=
| GF_nil : forall level, gfilled P level [] []
| GF_some : forall level e rest sv, gfilled P (S level) rest sv ->
    gfilled P level (Some e :: rest) (e :: sv)
| GF_none : forall level r rest sv, P level r -> gfilled P (S level) rest sv ->
    gfilled P level (None :: rest) (r :: sv).

Lemma gfilled_nth : forall P level slots sv, gfilled P level slots sv ->
  length sv = length slots /\
  forall i, match nth_error slots i with
            | Some (Some r) => nth_error sv i = Some r
            | Some None => exists r, nth_error sv i = Some r /\ P (level + i) r
            | None => True
            end.
Proof.
  intros P level slots sv F.
  induction F as [level|level e rest sv F [IHl IH]|level r rest sv Hr F [IHl IH]].
  - split; [reflexivity|]. intros [|i]; exact I.
  - split; [simpl; rewrite IHl; reflexivity|]. intros [|i]; [reflexivity|].
    simpl. rewrite Nat.add_succ_r. exact (IH i).
  - split; [simpl; rewrite IHl; reflexivity|]. intros [|i]; simpl.
    + exists r. rewrite Nat.add_0_r. split; [reflexivity | exact Hr].
    + rewrite Nat.add_succ_r. exact (IH i).
Qed.

End Slots.

Definition slot_at (l : list (option ref)) (i : nat) : option ref :=
  match nth_error l i with Some (Some r) => Some r | _ => None end.

Fixpoint plook (s : snap) (pairs : list (nat * ref)) (l : nat) : option ref :=
  match pairs with
  | [] => None
  | (v, r) :: rest =>
    match plook s rest l with
    | Some x => Some x
    | None =>
      match nth_error (s_v2l s) v with
      | Some lv => if Nat.eqb lv l then Some r else None
      | None => None
      end
    end
  end.

Lemma prepare_slots_ok : forall s pairs acc, WF s ->
  (forall v r, In (v, r) pairs -> v < nlevels s) -> length acc <= nlevels s ->
  exists slots, prepare_slots s pairs acc = Some slots /\ length slots <= nlevels s /\
    forall l, slot_at slots l = match plook s pairs l with Some x => Some x | None => slot_at acc l end.
Proof. exact (gprepare_slots_ok ref). Qed.

Lemma plook_beyond : forall s pairs l, WF s ->
  (forall v' r, In (v', r) pairs -> v' < nlevels s) ->
  nth_error (s_l2v s) l = None -> plook s pairs l = None.
Proof.
  intros s pairs l H. induction pairs as [|[v0 r0] rest IH]; intros Hv El; [reflexivity|].
  assert (Hv' : forall v' r, In (v', r) rest -> v' < nlevels s) by (intros v' r Hin; apply (Hv v' r); right; exact Hin).
  simpl. rewrite (IH Hv' El).
  destruct (nth_error (s_v2l s) v0) as [l0|] eqn:G; [|reflexivity].
  destruct (Nat.eqb_spec l0 l) as [->|]; [|reflexivity].
  assert (Hv0 : v0 < length (s_v2l s)) by (apply nth_error_Some; congruence).
  destruct (wf_perm_v2l s H v0 Hv0) as [l1 [G1 G2]]. rewrite G in G1. inversion G1; subst l1.
  rewrite El in G2. discriminate.
Qed.

(** the variable of a level as a node *)
Lemma var_node_ok : forall s lvl t1 t0 s' e, BddOK s -> lvl < nlevels s ->
  term_of s true = Some t1 -> term_of s false = Some t0 ->
  get_or_insert s lvl [E (RT t1); E (RT t0)] = (s', e) ->
  BddOK s' /\ extends s s' /\ Den s' (eref e) (fun c => Nat.eqb (c lvl) 0).
Proof.
  intros s lvl t1 t0 s' e B Hlvl T1 T0 Eg. pose proof (bo_wf s B) as H.
  pose proof (term_of_spec s true t1 H T1) as V1. pose proof (term_of_spec s false t0 H T0) as V0.
  simpl in V1, V0.
  assert (Hne : t1 <> t0) by (intros ->; rewrite V1 in V0; discriminate).
  set (ch := [E (RT t1); E (RT t0)]) in *.
  assert (Hae : all_equal ch = false).
  { unfold ch. simpl. unfold edge_eqb. simpl. rewrite andb_true_r, andb_false_iff. left.
    apply N.eqb_neq. congruence. }
  assert (Hch : children_ok s lvl ch).
  { split; [rewrite (bo_kind s B); reflexivity|].
    intros x [<-|[<-|[]]]; simpl; (split; [eexists; eassumption | split; [exact Hlvl | reflexivity]]). }
  destruct (get_or_insert_wf s lvl ch s' e H (bdd_kary s B) Hlvl Hch Hae Eg) as [W [X [O [_ [_ Sh]]]]].
  split; [apply (bddok_extends s s' B X W)|]. split; [exact X|].
  split; [exact O|]. intros c Hc. pose proof (Hc lvl) as Hc2.
  destruct (c lvl) as [|[|k]] eqn:Ec; [| |lia].
  - rewrite (Sh c 0 (E (RT t1)) Ec eq_refl). simpl. rewrite semk_T. exact V1.
  - rewrite (Sh c 1 (E (RT t0)) Ec eq_refl). simpl. rewrite semk_T. exact V0.
Qed.

Lemma prepare_fill_ok : forall slots s level, BddOK s -> level + length slots <= nlevels s ->
  (forall i r, nth_error slots i = Some (Some r) -> ref_ok s r) ->
  exists s' sv, prepare_fill s slots level = Some (s', sv) /\ BddOK s' /\ extends s s' /\
    Forall (ref_ok s') sv /\
    gfilled ref (fun l r => Den s' r (fun c => Nat.eqb (c l) 0)) level slots sv.
Proof.
  induction slots as [|[e|] rest IH]; intros s level B Hlen Hok; simpl in Hlen |- *.
  - exists s, []. split; [reflexivity|]. split; [exact B|]. split; [apply extends_refl|]. split; constructor.
  - destruct (IH s (S level) B ltac:(lia)) as [s' [sv [E [B' [X [F G]]]]]].
    { intros i r Hi. apply (Hok (S i) r). exact Hi. }
    rewrite E. exists s', (e :: sv). split; [reflexivity|]. split; [exact B'|]. split; [exact X|].
    split; [constructor; [apply (ext_ref_ok _ _ _ X); apply (Hok 0 e); reflexivity | exact F]
           | constructor; exact G].
  - destruct (term_of_total s true B) as [t1 T1]. destruct (term_of_total s false B) as [t0 T0].
    rewrite T1, T0.
    destruct (get_or_insert s level [E (RT t1); E (RT t0)]) as [s1 e] eqn:Eg.
    destruct (var_node_ok s level t1 t0 s1 e B ltac:(lia) T1 T0 Eg) as [B1 [X1 D1]].
    destruct (IH s1 (S level) B1) as [s' [sv [E [B' [X [F G]]]]]].
    { rewrite (ext_nlevels _ _ X1). lia. }
    { intros i r Hi. apply (ext_ref_ok _ _ _ X1). apply (Hok (S i) r). exact Hi. }
    rewrite E. pose proof (den_extends s1 s' _ _ B1 X D1) as D'.
    exists s', (eref e :: sv). split; [reflexivity|]. split; [exact B'|].
    split; [eapply extends_trans; eauto|].
    split; [constructor; [apply (proj1 D') | exact F] | constructor; [exact D' | exact G]].
Qed.

Theorem prepare_ok : forall s pairs, BddOK s -> NoDup (map fst pairs) ->
  (forall v r, In (v, r) pairs -> v < nlevels s /\ ref_ok s r) ->
  exists s0 sv, substitute_prepare s pairs = Some (s0, sv) /\ BddOK s0 /\ extends s s0 /\
    SvOK s0 sv pairs.
Proof.
  intros s pairs B Hnd Hp. pose proof (bo_wf s B) as H. unfold substitute_prepare.
  assert (Hv : forall v r, In (v, r) pairs -> v < nlevels s) by (intros v r Hin; apply (Hp v r Hin)).
  destruct (prepare_slots_ok s pairs [] H Hv ltac:(simpl; lia)) as [slots [E [Hlen Hs]]].
  rewrite E.
  assert (Hs' : forall l, slot_at slots l = plook s pairs l).
  { intros l. rewrite Hs. destruct (plook s pairs l); [reflexivity|].
    unfold slot_at. destruct l; reflexivity. }
  clear Hs.
  assert (Hslot : forall i r, nth_error slots i = Some (Some r) -> plook s pairs i = Some r).
  { intros i r Hi. rewrite <- Hs'. unfold slot_at. rewrite Hi. reflexivity. }
  destruct (prepare_fill_ok slots s 0 B ltac:(lia)) as [s0 [sv [Ef [B0 [X [F G]]]]]].
  { intros i r Hi. destruct (gplook_In ref s pairs i r (Hslot i r Hi)) as [v Hin]. apply (Hp v r Hin). }
  destruct (gfilled_nth ref _ _ _ _ G) as [Hl Hfill].
  rewrite Ef. exists s0, sv. split; [reflexivity|]. split; [exact B0|]. split; [exact X|].
  split; [exact F|].
  split; [intros v r Hin; apply (ext_ref_ok _ _ _ X); apply (Hp v r Hin)|].
  intros c Hc l. unfold sch, psch. rewrite (ext_l2v _ _ X).
  specialize (Hfill l). pose proof (Hs' l) as Hs. unfold slot_at in Hs.
  destruct (nth_error (s_l2v s) l) as [v|] eqn:El.
  - rewrite <- (gplook_assoc ref s pairs l v H Hnd Hv El : plook s pairs l = assoc_nat pairs v).
    destruct (nth_error slots l) as [[r|]|] eqn:Esl.
    + rewrite Hfill, <- Hs. reflexivity.
    + destruct Hfill as [r [Er Dr]]. rewrite Er, <- Hs.
      rewrite (dfun_den s0 r _ Dr c Hc). simpl.
      pose proof (Hc l). destruct (c l) as [|[|k]]; [reflexivity | reflexivity | lia].
    + assert (Hsv : nth_error sv l = None).
      { apply nth_error_None. rewrite Hl. apply nth_error_None. exact Esl. }
      rewrite Hsv, <- Hs. reflexivity.
  - assert (Hsv : nth_error sv l = None).
    { apply nth_error_None. rewrite Hl. apply nth_error_None in El. unfold nlevels in Hlen. lia. }
    rewrite Hsv. reflexivity.
Qed.

Section S.
Variable gt : ref -> ref -> bool.
Variable C : Type.
Variable cget : C -> N -> list ref -> option ref.
Variable cadd : C -> N -> list ref -> ref -> C.
Hypothesis Hlossy : lossy cget cadd.
Variable Sg : N -> option (list (nat * ref)).

Notation QOK := (QCacheOK cget Sg).
Notation qres := (qresult_ok cget Sg).

Lemma substitute_S : forall n s c f subst id,
  substitute gt C cget cadd (S n) s c f subst id =
    match f with
    | RT _ => Some (s, c, f)
    | RN fid =>
      match find_node s fid with
      | None => None
      | Some fnode =>
        let level := nstored fnode in
        if Nat.leb (length subst) level then Some (s, c, f)
        else
          match cget c (code_subst id) [f] with
          | Some h => Some (s, c, h)
          | None =>
            match nchildren fnode with
            | [ft; fe] =>
              match substitute gt C cget cadd n s c (eref ft) subst id with
              | None => None
              | Some (s1, c1, t) =>
                match substitute gt C cget cadd n s1 c1 (eref fe) subst id with
                | None => None
                | Some (s2, c2, e) =>
                  match nth_error subst level with
                  | None => None
                  | Some r =>
                    match apply_ite gt C cget cadd (S (nlevels s2)) s2 c2 r t e with
                    | None => None
                    | Some (s3, c3, res) => Some (s3, cadd c3 (code_subst id) [f] res, res)
                    end
                  end
                end
              end
            | _ => None
            end
          end
      end
    end.
Proof. reflexivity. Qed.

Theorem substitute_ok_c : forall fuel s c f sv id pairs phi,
  BddOK s -> QOK s c -> Den s f phi -> SvOK s sv pairs -> Sg id = Some pairs ->
  nlevels s - rlevel s f < fuel ->
  qres s (substitute gt C cget cadd fuel s c f sv id) (csubst s sv phi).
Proof.
  induction fuel as [|n IH]; intros s c f sv id pairs phi B Q D SV Es Hfuel; [lia|].
  pose proof (bo_wf s B) as H. pose proof (den_cext s f phi H D) as Xp.
  rewrite substitute_S. destruct f as [tf|fid].
  { apply (qresult_ok_here C cget Sg s c _ _ B Q). apply (den_ext s _ phi _ D).
    intros c0 Hc. unfold csubst. apply (den_term_const s tf phi _ _ D Hc). apply sch_bchoice. exact Hc. }
  destruct (proj1 D) as [fnd Ef]. rewrite Ef. cbv zeta. rewrite (wf_stored s H fid fnd Ef).
  rewrite (rlevel_node s fid fnd Ef) in Hfuel.
  destruct (den_node s fid fnd phi B D Ef) as [Hlv [Ip [ft [fe [Ech [Dft [Dfe [Lft Lfe]]]]]]]].
  set (lvl := nlevel fnd) in *.
  destruct (Nat.leb_spec (length sv) lvl) as [Hlen|Hlen].
  { (* all replaced levels are above f *)
    apply (qresult_ok_here C cget Sg s c _ _ B Q). apply (den_ext s _ phi _ D).
    intros c0 Hc. apply (gsch_beyond ref (dfun s) sv phi lvl c0 Ip Hlen Hc). }
  destruct (cget c (code_subst id) [RN fid]) as [h|] eqn:Ecache.
  { destruct (proj2 (proj2 (proj2 (proj2 Q _ _ _ Ecache))) id (RN fid) eq_refl eq_refl)
      as [pairs0 [phi0 [Es0 [_ [D0 Dh]]]]].
    rewrite Es in Es0. inversion Es0; subst pairs0.
    apply (qresult_ok_here C cget Sg s c _ _ B Q). apply (den_ext s h _ _ Dh).
    intros c0 Hc. rewrite (cs_ps s sv pairs phi SV Xp c0 Hc).
    apply psubst_ext; [|exact Hc]. apply (den_unique s _ phi0 phi D0 D). }
  rewrite Ech.
  refine (qresult_ok_bind C cget Sg s _ _ _ _ (IH s c (eref ft) sv id pairs _ B Q Dft SV Es ltac:(lia)) _).
  intros s1 c1 t B1 X1 Q1 D1.
  refine (qresult_ok_bind C cget Sg s1 _ _ _ _
            (IH s1 c1 (eref fe) sv id pairs _ B1 Q1 (den_extends s s1 _ _ B X1 Dfe)
                (svok_extends s s1 sv pairs H X1 SV) Es (fuel_extends s s1 _ n X1 (proj1 Dfe) ltac:(lia))) _).
  intros s2 c2 e B2 X2 Q2 D2.
  assert (X02 : extends s s2) by (eapply extends_trans; eauto).
  destruct (nth_error sv lvl) as [r|] eqn:Er; [|apply nth_error_None in Er; lia].
  assert (Or : ref_ok s r).
  { destruct SV as [F _]. rewrite Forall_forall in F. apply F. eapply nth_error_In; eauto. }
  assert (D2' : Den s2 e (csubst s sv (cofn phi lvl 1))).
  { apply (den_ext s2 e _ _ D2). intros c0 Hc.
    apply (csubst_extends s s1 sv _ H X1 (proj1 SV)); [apply cext_cofn; [exact Xp | lia] | exact Hc]. }
  apply (qresult_ok_cached C cget cadd Hlossy Sg s2 _ _ _ _); [|apply code_subst_gt|].
  - apply (qresult_ok_ext C cget Sg s2 _ _ _
             (q_apply_ite gt C cget cadd Hlossy Sg s2 c2 r t e _ _ _ B2 Q2
                (den_extends s s2 _ _ B X02 (den_dfun s r B Or)) (den_extends s1 s2 _ _ B1 X2 D1) D2')).
    intros c0 Hc. apply (gsch_shannon ref (dfun s) sv phi lvl r c0 Xp Hc Er).
  - intros s' res X Dres. assert (X' : extends s s') by (eapply extends_trans; eauto).
    apply (qentry_subst Sg s' id (RN fid) res pairs phi Es (pairs_ok_extends s s' pairs X' (proj1 (proj2 SV)))
             (den_extends s s' _ _ B X' D)).
    apply (den_ext s' res _ _ Dres). intros c0 Hc.
    rewrite (cs_ps s sv pairs phi SV Xp c0 Hc). symmetry.
    apply (psubst_extends s s' pairs phi H X' (proj1 (proj2 SV)) Xp c0 Hc).
Qed.

Theorem substitute_ok : forall fuel s c f sv id pairs phi,
  BddOK s -> QOK s c -> Den s f phi -> SvOK s sv pairs -> Sg id = Some pairs ->
  nlevels s - rlevel s f < fuel ->
  qres s (substitute gt C cget cadd fuel s c f sv id) (psubst s pairs phi).
Proof.
  intros fuel s c f sv id pairs phi B Q D SV Es Hfuel.
  apply (qresult_ok_ext C cget Sg s _ (csubst s sv phi)).
  - apply (substitute_ok_c fuel s c f sv id pairs phi B Q D SV Es Hfuel).
  - intros c0 Hc. apply cs_ps; [exact SV | apply (den_cext s f phi (bo_wf s B) D) | exact Hc].
Qed.

(** [substitute_edge] = [substitute_prepare] + [substitute] *)
Theorem substitute_edge_ok : forall s c f pairs id phi,
  BddOK s -> QOK s c -> Den s f phi -> NoDup (map fst pairs) ->
  (forall v r, In (v, r) pairs -> v < nlevels s /\ ref_ok s r) -> Sg id = Some pairs ->
  qres s (substitute_edge gt C cget cadd s c f pairs id) (psubst s pairs phi).
Proof.
  intros s c f pairs id phi B Q D Hnd Hp Es. pose proof (bo_wf s B) as H.
  unfold substitute_edge.
  destruct (prepare_ok s pairs B Hnd Hp) as [s0 [sv [Ep [B0 [X0 SV]]]]]. rewrite Ep.
  pose proof (den_extends s s0 _ _ B X0 D) as D0.
  pose proof (rlevel_le s0 (bo_wf s0 B0) f) as Hle.
  destruct (substitute_ok (S (nlevels s0)) s0 c f sv id pairs phi B0
              (qcacheok_extends C cget Sg s s0 c B X0 Q) D0 SV Es ltac:(lia))
    as [s' [c' [r [E [B' [X' [Q' D']]]]]]].
  exists s', c', r. split; [exact E|]. split; [exact B'|].
  split; [eapply extends_trans; eauto|]. split; [exact Q'|].
  apply (den_ext s' r _ _ D'). intros c0 Hc.
  apply (psubst_extends s s0 pairs phi H X0); [|apply (den_cext s f phi H D) | exact Hc].
  intros v r0 Hin. apply (Hp v r0 Hin).
Qed.

End S.

(** ** Fresh ids: registering a new substitution object *)

Definition sg_add (Sg : N -> option (list (nat * ref))) (id : N) (pairs : list (nat * ref))
  : N -> option (list (nat * ref)) :=
  fun i => if N.eqb i id then Some pairs else Sg i.

Theorem qcacheok_register : forall C (cget : C -> N -> list ref -> option ref) Sg s c id pairs,
  QCacheOK cget Sg s c -> Sg id = None -> QCacheOK cget (sg_add Sg id pairs) s c.
Proof.
  intros C cget Sg s c id pairs [O Q] Hfresh. split; [exact O|].
  intros code args r E. destruct (Q code args r E) as [Q1 [Q2 [Q3 Q4]]].
  split; [exact Q1|]. split; [exact Q2|]. split; [exact Q3|].
  intros id' f Hc Ha. destruct (Q4 id' f Hc Ha) as [pairs0 [phi [Es R]]].
  exists pairs0, phi. split; [|exact R]. unfold sg_add.
  destruct (N.eqb_spec id' id) as [->|]; [congruence | exact Es].
Qed.

(** under a fresh id the cache serves nothing *)
Theorem fresh_id_no_entry : forall C (cget : C -> N -> list ref -> option ref) Sg s c id f r,
  QCacheOK cget Sg s c -> Sg id = None -> cget c (code_subst id) [f] = Some r -> False.
Proof.
  intros C cget Sg s c id f r [_ Q] Hfresh E.
  destruct (proj2 (proj2 (proj2 (Q _ _ _ E))) id f eq_refl eq_refl) as [pairs0 [phi [Es _]]].
  congruence.
Qed.
