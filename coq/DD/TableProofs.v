(** * Specifications of the executable definitions of DD/Table.v

    - [WF]: the structural invariant of C03 as a record of readable clauses,
      and [wf_b_spec]: the checker [wf_b] decides exactly [WF];
    - fuel adequacy of the three interpreters ([semk_total], [semc_total],
      [semz_total], [sem_total] and the [*_fuel] lemmas);
    - [rc_exact_b_spec] and [no_dead_reachable] (C05).

    Nothing in DD/Table.v is changed by this file. *)

From Coq Require Import List NArith PArith Bool Arith Lia FMapPositive SetoidList.
From OxiVerif Require Import DD.Table DD.TableExtra.
Import ListNotations.

Arguments N.add : simpl never.
Arguments N.sub : simpl never.
Arguments N.mul : simpl never.

(** ** Equality tests *)

Lemma ref_eqb_eq : forall a b, ref_eqb a b = true <-> a = b.
Proof.
  intros [x|x] [y|y]; simpl; split; intro H; try discriminate; try congruence.
  - apply N.eqb_eq in H. congruence.
  - inversion H. apply N.eqb_refl.
  - apply Pos.eqb_eq in H. congruence.
  - inversion H. apply Pos.eqb_refl.
Qed.

Lemma edge_eqb_eq : forall a b, edge_eqb a b = true <-> a = b.
Proof.
  intros [ra ta] [rb tb]. unfold edge_eqb. simpl.
  rewrite andb_true_iff, ref_eqb_eq, Bool.eqb_true_iff.
  split; [intros [H1 H2]; congruence | intro H; inversion H; auto].
Qed.

Lemma edges_eqb_eq : forall a b, edges_eqb a b = true <-> a = b.
Proof.
  induction a as [|x a IH]; intros [|y b]; simpl; split; intro H;
    try discriminate; try reflexivity.
  - apply andb_true_iff in H. destruct H as [H1 H2].
    apply edge_eqb_eq in H1. apply IH in H2. congruence.
  - inversion H; subst. apply andb_true_iff. split; [apply edge_eqb_eq | apply IH]; reflexivity.
Qed.

Lemma ref_eq_dec : forall a b : ref, {a = b} + {a <> b}.
Proof. decide equality; [apply N.eq_dec | apply Pos.eq_dec]. Defined.

Lemma edge_ext : forall a b, eref a = eref b -> etag a = etag b -> a = b.
Proof. intros [ra ta] [rb tb]; simpl; intros; congruence. Qed.

(** ** The invariant, clause by clause *)

(** [a] maps [0, length a) into the indices of [b], and [b] maps back *)
Definition inv_on (a b : list nat) : Prop :=
  forall i, i < length a -> exists j, nth_error a i = Some j /\ nth_error b j = Some i.

(** the reference points to something that is stored *)
Definition ref_ok (s : snap) (r : ref) : Prop :=
  match r with
  | RT t => exists v, term_val s t = Some v
  | RN id => exists nd, find_node s id = Some nd
  end.

(** all members of the child list are the same edge *)
Definition all_same (ch : list edge) : Prop :=
  forall a b, In a ch -> In b ch -> a = b.

(** the reduction rule of the snapshot's kind *)
Definition reduced (s : snap) (ch : list edge) : Prop :=
  match s_kind s with
  | KZbdd =>
    exists hi, hd_error ch = Some hi /\
               forall t, eref hi = RT t -> term_val s t <> Some 0%N
  | KBcdd =>
    ~ all_same ch /\ exists t, hd_error ch = Some t /\ etag t = false
  | _ => ~ all_same ch
  end.

Record WF (s : snap) : Prop := mkWF {
  (* var_to_level and level_to_var are mutually inverse permutations of [0,n) *)
  wf_perm_len : length (s_v2l s) = length (s_l2v s);
  wf_perm_v2l : inv_on (s_v2l s) (s_l2v s);
  wf_perm_l2v : inv_on (s_l2v s) (s_v2l s);
  (* every stored node ... *)
  wf_arity : forall id nd, find_node s id = Some nd ->
      length (nchildren nd) = arity (s_kind s);
  wf_stored : forall id nd, find_node s id = Some nd -> nstored nd = nlevel nd;
  wf_level : forall id nd, find_node s id = Some nd -> nlevel nd < nlevels s;
  wf_child : forall id nd e, find_node s id = Some nd -> In e (nchildren nd) ->
      ref_ok s (eref e) /\ nlevel nd < rlevel s (eref e);
  wf_reduced : forall id nd, find_node s id = Some nd -> reduced s (nchildren nd);
  wf_tags : s_kind s <> KBcdd ->
      forall id nd e, find_node s id = Some nd -> In e (nchildren nd) -> etag e = false;
  (* per-level uniqueness *)
  wf_unique : forall id1 id2 n1 n2,
      find_node s id1 = Some n1 -> find_node s id2 = Some n2 ->
      nlevel n1 = nlevel n2 -> nchildren n1 = nchildren n2 -> id1 = id2;
  (* terminal ids and terminal value codes pairwise distinct *)
  wf_term_ids : NoDup (map fst (s_terms s));
  wf_term_vals : NoDup (map snd (s_terms s));
  (* handles refer to stored nodes; tags only for BCDDs *)
  wf_handles : forall h, In h (s_handles s) ->
      ref_ok s (eref (snd h)) /\ (s_kind s <> KBcdd -> etag (snd h) = false)
}.

(** ** [wf_b] decides [WF] *)

Lemma inverse_at_spec : forall a b cnt v,
  inverse_at a b v cnt = true <->
  (forall i, v <= i < v + cnt -> exists j, nth_error a i = Some j /\ nth_error b j = Some i).
Proof.
  induction cnt as [|k IH]; intros v; simpl.
  - split; [intros _ i Hi; lia | reflexivity].
  - split.
    + intros H i Hi.
      destruct (nth_error a v) as [l|] eqn:E1; [|discriminate].
      destruct (nth_error b l) as [v'|] eqn:E2; [|discriminate].
      apply andb_true_iff in H. destruct H as [H1 H2]. apply Nat.eqb_eq in H1. subst v'.
      destruct (Nat.eq_dec i v) as [->|Hne].
      * exists l. auto.
      * apply (proj1 (IH (S v)) H2). lia.
    + intros H. destruct (H v ltac:(lia)) as [j [E1 E2]]. rewrite E1, E2, Nat.eqb_refl. simpl.
      apply IH. intros i Hi. apply H. lia.
Qed.

Lemma perm_inverse_b_spec : forall a b,
  perm_inverse_b a b = true <-> length a = length b /\ inv_on a b /\ inv_on b a.
Proof.
  intros a b. unfold perm_inverse_b, inv_on.
  rewrite !andb_true_iff, Nat.eqb_eq, !inverse_at_spec.
  split.
  - intros [[H1 H2] H3]. repeat split; auto.
    + intros i Hi. apply H2. lia.
    + intros i Hi. apply H3. lia.
  - intros [H1 [H2 H3]]. repeat split; auto.
    + intros i Hi. apply H2. lia.
    + intros i Hi. apply H3. lia.
Qed.

Lemma ref_ok_b_spec : forall s r, ref_ok_b s r = true <-> ref_ok s r.
Proof.
  intros s [t|id]; simpl.
  - destruct (term_val s t) as [v|].
    + split; [intros _; exists v; reflexivity | reflexivity].
    + split; [discriminate | intros [v H]; discriminate].
  - destruct (find_node s id) as [nd|].
    + split; [intros _; exists nd; reflexivity | reflexivity].
    + split; [discriminate | intros [nd H]; discriminate].
Qed.

Lemma all_equal_spec : forall l, all_equal l = true <-> all_same l.
Proof.
  unfold all_same. induction l as [|a [|b r] IH].
  - simpl. split; [intros _ x y [] | reflexivity].
  - simpl. split; [|reflexivity]. intros _ x y [<-|[]] [<-|[]]. reflexivity.
  - change (all_equal (a :: b :: r)) with (edge_eqb a b && all_equal (b :: r)).
    rewrite andb_true_iff, edge_eqb_eq, IH. split.
    + intros [-> H] x y Hx Hy.
      assert (Hb : In b (b :: r)) by (left; reflexivity).
      assert (Hx' : x = b) by (destruct Hx as [<-|Hx]; [reflexivity | apply H; auto]).
      assert (Hy' : y = b) by (destruct Hy as [<-|Hy]; [reflexivity | apply H; auto]).
      congruence.
    + intros H. split.
      * apply H; [left; reflexivity | right; left; reflexivity].
      * intros x y Hx Hy. apply H; right; assumption.
Qed.

Lemma is_term_with_spec : forall s r v,
  is_term_with s r v = true <-> exists t, r = RT t /\ term_val s t = Some v.
Proof.
  intros s [t|id] v; simpl.
  - destruct (term_val s t) as [w|] eqn:E.
    + rewrite N.eqb_eq. split.
      * intros ->. exists t. auto.
      * intros [t' [H1 H2]]. inversion H1; subst t'. congruence.
    + split; [discriminate|]. intros [t' [H1 H2]]. inversion H1; subst t'. congruence.
  - split; [discriminate|]. intros [t' [H1 _]]. discriminate.
Qed.

Lemma reduced_b_spec : forall s ch, reduced_b s ch = true <-> reduced s ch.
Proof.
  intros s ch. unfold reduced_b, reduced.
  assert (Hk : negb (all_equal ch) = true <-> ~ all_same ch).
  { rewrite negb_true_iff, <- all_equal_spec. destruct (all_equal ch); split; congruence. }
  destruct (s_kind s); try exact Hk.
  - (* BCDD *)
    rewrite andb_true_iff, Hk. apply and_iff_compat_l.
    destruct ch as [|t r]; simpl.
    + split; [discriminate|]. intros [t [H _]]. discriminate.
    + rewrite negb_true_iff. split.
      * intros H. exists t. auto.
      * intros [t' [H1 H2]]. congruence.
  - (* ZBDD *)
    destruct ch as [|hi r]; simpl.
    + split; [discriminate|]. intros [t [H _]]. discriminate.
    + rewrite negb_true_iff. split.
      * intros H. exists hi. split; [reflexivity|]. intros t Ht Hv.
        assert (X : is_term_with s (eref hi) 0 = true) by (apply is_term_with_spec; eauto).
        congruence.
      * intros [h [H1 H2]]. inversion H1; subst h.
        destruct (is_term_with s (eref hi) 0) eqn:E; [|reflexivity].
        apply is_term_with_spec in E. destruct E as [t [E1 E2]]. exfalso. eapply H2; eauto.
Qed.

Lemma tags_ok_b_spec : forall s ch,
  tags_ok_b s ch = true <-> (s_kind s <> KBcdd -> forall e, In e ch -> etag e = false).
Proof.
  intros s ch. unfold tags_ok_b.
  assert (Hk : forallb (fun e => negb (etag e)) ch = true <-> (forall e, In e ch -> etag e = false)).
  { rewrite forallb_forall. split; intros H e He; specialize (H e He);
      [apply negb_true_iff in H | apply negb_true_iff]; assumption. }
  destruct (s_kind s); try (rewrite Hk; split; [intros H _; exact H | intros H; apply H; discriminate]).
  split; [intros _ H; congruence | reflexivity].
Qed.

(** the per-node clauses of [WF] *)
Definition node_ok (s : snap) (nd : node) : Prop :=
  length (nchildren nd) = arity (s_kind s) /\
  nstored nd = nlevel nd /\
  nlevel nd < nlevels s /\
  (forall e, In e (nchildren nd) -> ref_ok s (eref e) /\ nlevel nd < rlevel s (eref e)) /\
  reduced s (nchildren nd) /\
  (s_kind s <> KBcdd -> forall e, In e (nchildren nd) -> etag e = false).

Lemma node_ok_b_spec : forall s nd, node_ok_b s nd = true <-> node_ok s nd.
Proof.
  intros s nd. unfold node_ok_b, node_ok.
  rewrite !andb_true_iff, !Nat.eqb_eq, Nat.ltb_lt, reduced_b_spec, tags_ok_b_spec, forallb_forall.
  assert (Hc : (forall e, In e (nchildren nd) ->
                  ref_ok_b s (eref e) && (nlevel nd <? rlevel s (eref e)) = true) <->
               (forall e, In e (nchildren nd) -> ref_ok s (eref e) /\ nlevel nd < rlevel s (eref e))).
  { split; intros H e He; specialize (H e He).
    - apply andb_true_iff in H. rewrite ref_ok_b_spec, Nat.ltb_lt in H. exact H.
    - apply andb_true_iff. rewrite ref_ok_b_spec, Nat.ltb_lt. exact H. }
  rewrite Hc. tauto.
Qed.

Lemma find_node_elements : forall s id nd,
  find_node s id = Some nd <-> In (id, nd) (PositiveMap.elements (s_nodes s)).
Proof.
  intros. unfold find_node. split;
    [apply PositiveMap.elements_correct | apply PositiveMap.elements_complete].
Qed.

Lemma elements_keys_nodup : forall (A : Type) (m : PositiveMap.t A),
  NoDup (map fst (PositiveMap.elements m)).
Proof.
  intros A m. pose proof (PositiveMap.elements_3w m) as H.
  induction H as [|x l Hx Hl IH]; simpl; constructor; auto.
  intros Hin. apply Hx. apply in_map_iff in Hin. destruct Hin as [y [Hy1 Hy2]].
  apply InA_alt. exists y. split; [|assumption].
  unfold PositiveMap.eq_key, PositiveMap.E.eq. congruence.
Qed.

Lemma same_node_spec : forall a b,
  same_node a b = true <-> nlevel a = nlevel b /\ nchildren a = nchildren b.
Proof. intros. unfold same_node. rewrite andb_true_iff, Nat.eqb_eq, edges_eqb_eq. tauto. Qed.

Lemma unique_in_spec : forall x l,
  unique_in x l = true <-> forall y, In y l -> same_node (snd x) (snd y) = false.
Proof.
  induction l as [|y r IH]; simpl.
  - split; [intros _ y [] | reflexivity].
  - rewrite andb_true_iff, negb_true_iff, IH. split.
    + intros [H1 H2] z [<-|Hz]; auto.
    + intros H. split; [apply H; left; reflexivity | intros z Hz; apply H; right; exact Hz].
Qed.

Lemma unique_nodes_b_spec : forall l : list (positive * node),
  NoDup (map fst l) ->
  (unique_nodes_b l = true <->
   forall x y, In x l -> In y l -> same_node (snd x) (snd y) = true -> fst x = fst y).
Proof.
  induction l as [|x r IH]; intros Hnd; simpl.
  - split; [intros _ x y [] | reflexivity].
  - inversion Hnd as [|? ? Hx Hr]; subst.
    rewrite andb_true_iff, unique_in_spec, (IH Hr). split.
    + intros [H1 H2] a b [<-|Ha] [<-|Hb] Hs; auto.
      * rewrite (H1 b Hb) in Hs. discriminate.
      * apply same_node_spec in Hs. destruct Hs as [Hs1 Hs2].
        assert (Hs' : same_node (snd x) (snd a) = true) by (apply same_node_spec; auto).
        rewrite (H1 a Ha) in Hs'. discriminate.
    + intros H. split.
      * intros y Hy. destruct (same_node (snd x) (snd y)) eqn:E; [|reflexivity].
        exfalso. apply Hx. rewrite (H x y (or_introl eq_refl) (or_intror Hy) E).
        apply in_map. exact Hy.
      * intros a b Ha Hb. apply H; right; assumption.
Qed.

Lemma terms_unique_b_spec : forall l : list (N * N),
  terms_unique_b l = true <-> NoDup (map fst l) /\ NoDup (map snd l).
Proof.
  induction l as [|[i v] r IH]; simpl.
  - split; [intros _; split; constructor | reflexivity].
  - rewrite andb_true_iff, IH, forallb_forall. split.
    + intros [H [H1 H2]]. split; constructor; auto.
      * intros Hin. apply in_map_iff in Hin. destruct Hin as [p [Hp1 Hp2]].
        specialize (H p Hp2). apply andb_true_iff in H. destruct H as [H _].
        apply negb_true_iff in H. apply N.eqb_neq in H. congruence.
      * intros Hin. apply in_map_iff in Hin. destruct Hin as [p [Hp1 Hp2]].
        specialize (H p Hp2). apply andb_true_iff in H. destruct H as [_ H].
        apply negb_true_iff in H. apply N.eqb_neq in H. congruence.
    + intros [H1 H2]. inversion H1 as [|? ? Hi H1']; subst. inversion H2 as [|? ? Hv H2']; subst.
      split; [|split; assumption].
      intros p Hp. apply andb_true_iff. split; apply negb_true_iff; apply N.eqb_neq; intro E.
      * apply Hi. rewrite <- E. apply in_map. exact Hp.
      * apply Hv. rewrite <- E. apply in_map. exact Hp.
Qed.

Lemma handles_ok_b_spec : forall s,
  handles_ok_b s = true <->
  forall h, In h (s_handles s) ->
    ref_ok s (eref (snd h)) /\ (s_kind s <> KBcdd -> etag (snd h) = false).
Proof.
  intros s. unfold handles_ok_b. rewrite forallb_forall.
  assert (Hk : forall h : N * edge,
    (match s_kind s with KBcdd => true | _ => negb (etag (snd h)) end) = true <->
    (s_kind s <> KBcdd -> etag (snd h) = false)).
  { intros h. destruct (s_kind s); try (rewrite negb_true_iff; split; [intros H _; exact H | intros H; apply H; discriminate]).
    split; [intros _ H; congruence | reflexivity]. }
  split; intros H h Hh; specialize (H h Hh).
  - apply andb_true_iff in H. rewrite ref_ok_b_spec, Hk in H. exact H.
  - apply andb_true_iff. rewrite ref_ok_b_spec, Hk. exact H.
Qed.

Theorem wf_b_spec : forall s, wf_b s = true <-> WF s.
Proof.
  intros s. unfold wf_b.
  rewrite !andb_true_iff, perm_inverse_b_spec, terms_unique_b_spec, handles_ok_b_spec,
    forallb_forall, (unique_nodes_b_spec _ (elements_keys_nodup _ (s_nodes s))).
  split.
  - intros [[[[[Hp1 [Hp2 Hp3]] Hn] Hu] [Ht1 Ht2]] Hh].
    assert (Hn' : forall id nd, find_node s id = Some nd -> node_ok s nd).
    { intros id nd E. apply node_ok_b_spec. apply (Hn (id, nd)). apply find_node_elements. exact E. }
    constructor; auto.
    + intros id nd E. apply (Hn' id nd E).
    + intros id nd E. apply (Hn' id nd E).
    + intros id nd E. apply (Hn' id nd E).
    + intros id nd e E. apply (Hn' id nd E).
    + intros id nd E. apply (Hn' id nd E).
    + intros Hk id nd e E. apply (Hn' id nd E). exact Hk.
    + intros id1 id2 n1 n2 E1 E2 Hl Hc.
      apply (Hu (id1, n1) (id2, n2)); [apply find_node_elements; exact E1 | apply find_node_elements; exact E2 |].
      apply same_node_spec. auto.
  - intros H.
    split; [split; [split; [split|]|]|].
    + split; [apply (wf_perm_len s H) | split; [apply (wf_perm_v2l s H) | apply (wf_perm_l2v s H)]].
    + intros [id nd] Hin. apply find_node_elements in Hin. simpl. apply node_ok_b_spec.
      unfold node_ok.
      split; [apply (wf_arity s H id nd Hin)|].
      split; [apply (wf_stored s H id nd Hin)|].
      split; [apply (wf_level s H id nd Hin)|].
      split; [intros e He; apply (wf_child s H id nd e Hin He)|].
      split; [apply (wf_reduced s H id nd Hin)|].
      intros Hk e He. apply (wf_tags s H Hk id nd e Hin He).
    + intros [id1 n1] [id2 n2] H1 H2 Hs. simpl in *.
      apply find_node_elements in H1. apply find_node_elements in H2.
      apply same_node_spec in Hs. destruct Hs as [Hs1 Hs2].
      apply (wf_unique s H id1 id2 n1 n2 H1 H2 Hs1 Hs2).
    + split; [apply (wf_term_ids s H) | apply (wf_term_vals s H)].
    + apply (wf_handles s H).
Qed.

(** ** Fuel adequacy of the interpreters *)

(** a choice function selects an existing child at every level *)
Definition choice_ok (s : snap) (c : nat -> nat) : Prop := forall l, c l < arity (s_kind s).

Lemma semk_T : forall s f t c, semk s f (RT t) c = term_val s t.
Proof. destruct f; reflexivity. Qed.

Lemma semk_S : forall s f id c,
  semk s (S f) (RN id) c =
  match find_node s id with
  | None => None
  | Some nd =>
    match nth_error (nchildren nd) (c (nlevel nd)) with
    | None => None
    | Some e => semk s f (eref e) c
    end
  end.
Proof. reflexivity. Qed.

Lemma semc_T : forall s f e c t, eref e = RT t -> semc s f e c = Some (negb (etag e)).
Proof. intros s f e c t E. destruct f; simpl; rewrite E; reflexivity. Qed.

Lemma semc_S : forall s f e c id, eref e = RN id ->
  semc s (S f) e c =
  match find_node s id with
  | None => None
  | Some nd =>
    match nth_error (nchildren nd) (c (nlevel nd)) with
    | None => None
    | Some e' =>
      match semc s f e' c with
      | Some b => Some (xorb (etag e) b)
      | None => None
      end
    end
  end.
Proof. intros s f e c id E. simpl. rewrite E. reflexivity. Qed.

Lemma semc_O : forall s e c id, eref e = RN id -> semc s 0 e c = None.
Proof. intros s e c id E. simpl. rewrite E. reflexivity. Qed.

Lemma semz_T : forall s f lvl t c,
  semz s f lvl (RT t) c =
  match term_val s t with
  | Some v => Some (N.eqb v 1 && all_lo c lvl (nlevels s - lvl))
  | None => None
  end.
Proof. destruct f; reflexivity. Qed.

Lemma semz_S : forall s f lvl id c,
  semz s (S f) lvl (RN id) c =
  match find_node s id with
  | None => None
  | Some nd =>
    if Nat.ltb (nlevel nd) lvl then None
    else if all_lo c lvl (nlevel nd - lvl) then
      match nth_error (nchildren nd) (c (nlevel nd)) with
      | None => None
      | Some e => semz s f (S (nlevel nd)) (eref e) c
      end
    else Some false
  end.
Proof. reflexivity. Qed.

Arguments semk : simpl never.
Arguments semc : simpl never.
Arguments semz : simpl never.

Section Fuel.
Variable s : snap.
Hypothesis H : WF s.

Lemma rlevel_node : forall id nd, find_node s id = Some nd -> rlevel s (RN id) = nlevel nd.
Proof. intros id nd E. simpl. rewrite E. reflexivity. Qed.

Lemma rlevel_term : forall t, rlevel s (RT t) = nlevels s.
Proof. reflexivity. Qed.

Lemma rlevel_le : forall r, rlevel s r <= nlevels s.
Proof.
  intros [t|id]; simpl; [lia|].
  destruct (find_node s id) as [nd|] eqn:E; [|lia].
  pose proof (wf_level s H id nd E). lia.
Qed.

Lemma child_nth : forall id nd i e,
  find_node s id = Some nd -> nth_error (nchildren nd) i = Some e ->
  ref_ok s (eref e) /\ nlevel nd < rlevel s (eref e).
Proof. intros id nd i e E He. apply (wf_child s H id nd e E). eapply nth_error_In; eauto. Qed.

Lemma child_exists : forall id nd i,
  find_node s id = Some nd -> i < arity (s_kind s) ->
  exists e, nth_error (nchildren nd) i = Some e.
Proof.
  intros id nd i E Hi. destruct (nth_error (nchildren nd) i) as [e|] eqn:He; [eauto|].
  apply nth_error_None in He. rewrite (wf_arity s H id nd E) in He. lia.
Qed.

(** any two fuels above the height of the reference agree *)
Lemma semk_fuel : forall f1 f2 r c, ref_ok s r ->
  nlevels s - rlevel s r < f1 -> nlevels s - rlevel s r < f2 ->
  semk s f1 r c = semk s f2 r c.
Proof.
  induction f1 as [|f1 IH]; intros f2 r c Hok H1 H2; [lia|].
  destruct r as [t|id]; [rewrite !semk_T; reflexivity|].
  destruct f2 as [|f2]; [lia|]. rewrite !semk_S.
  destruct (find_node s id) as [nd|] eqn:E; [|reflexivity].
  rewrite (rlevel_node id nd E) in H1, H2.
  destruct (nth_error (nchildren nd) (c (nlevel nd))) as [e|] eqn:He; [|reflexivity].
  destruct (child_nth id nd _ e E He) as [Hoe Hle].
  pose proof (rlevel_le (eref e)).
  apply IH; auto; lia.
Qed.

Lemma semk_total : forall f r c, ref_ok s r -> choice_ok s c ->
  nlevels s - rlevel s r < f -> exists v, semk s f r c = Some v.
Proof.
  induction f as [|f IH]; intros r c Hok Hc Hf; [lia|].
  destruct r as [t|id]; [rewrite semk_T; exact Hok|].
  destruct Hok as [nd E]. rewrite semk_S, E.
  rewrite (rlevel_node id nd E) in Hf.
  destruct (child_exists id nd (c (nlevel nd)) E (Hc _)) as [e He]. rewrite He.
  destruct (child_nth id nd _ e E He) as [Hoe Hle].
  pose proof (rlevel_le (eref e)).
  apply IH; auto; lia.
Qed.

Lemma semc_fuel : forall f1 f2 e c, ref_ok s (eref e) ->
  nlevels s - rlevel s (eref e) < f1 -> nlevels s - rlevel s (eref e) < f2 ->
  semc s f1 e c = semc s f2 e c.
Proof.
  induction f1 as [|f1 IH]; intros f2 e c Hok H1 H2; [lia|].
  destruct (eref e) as [t|id] eqn:Er; [rewrite !(semc_T _ _ _ _ t Er); reflexivity|].
  destruct f2 as [|f2]; [lia|]. rewrite !(semc_S _ _ _ _ id Er).
  destruct (find_node s id) as [nd|] eqn:E; [|reflexivity].
  rewrite (rlevel_node id nd E) in H1, H2.
  destruct (nth_error (nchildren nd) (c (nlevel nd))) as [e'|] eqn:He; [|reflexivity].
  destruct (child_nth id nd _ e' E He) as [Hoe Hle].
  pose proof (rlevel_le (eref e')).
  rewrite (IH f2 e' c); auto; lia.
Qed.

Lemma semc_total : forall f e c, ref_ok s (eref e) -> choice_ok s c ->
  nlevels s - rlevel s (eref e) < f -> exists b, semc s f e c = Some b.
Proof.
  induction f as [|f IH]; intros e c Hok Hc Hf; [lia|].
  destruct (eref e) as [t|id] eqn:Er; [rewrite (semc_T _ _ _ _ t Er); eauto|].
  destruct Hok as [nd E]. rewrite (semc_S _ _ _ _ id Er), E.
  rewrite (rlevel_node id nd E) in Hf.
  destruct (child_exists id nd (c (nlevel nd)) E (Hc _)) as [e' He]. rewrite He.
  destruct (child_nth id nd _ e' E He) as [Hoe Hle].
  pose proof (rlevel_le (eref e')).
  destruct (IH e' c Hoe Hc ltac:(lia)) as [b Hb]. rewrite Hb. eauto.
Qed.

Lemma semz_fuel : forall f1 f2 lvl r c, ref_ok s r ->
  nlevels s - rlevel s r < f1 -> nlevels s - rlevel s r < f2 ->
  semz s f1 lvl r c = semz s f2 lvl r c.
Proof.
  induction f1 as [|f1 IH]; intros f2 lvl r c Hok H1 H2; [lia|].
  destruct r as [t|id]; [rewrite !semz_T; reflexivity|].
  destruct f2 as [|f2]; [lia|]. rewrite !semz_S.
  destruct (find_node s id) as [nd|] eqn:E; [|reflexivity].
  rewrite (rlevel_node id nd E) in H1, H2.
  destruct (Nat.ltb (nlevel nd) lvl); [reflexivity|].
  destruct (all_lo c lvl (nlevel nd - lvl)); [|reflexivity].
  destruct (nth_error (nchildren nd) (c (nlevel nd))) as [e|] eqn:He; [|reflexivity].
  destruct (child_nth id nd _ e E He) as [Hoe Hle].
  pose proof (rlevel_le (eref e)).
  apply IH; auto; lia.
Qed.

Lemma semz_total : forall f lvl r c, ref_ok s r -> choice_ok s c -> lvl <= rlevel s r ->
  nlevels s - rlevel s r < f -> exists b, semz s f lvl r c = Some b.
Proof.
  induction f as [|f IH]; intros lvl r c Hok Hc Hl Hf; [lia|].
  destruct r as [t|id].
  - rewrite semz_T. destruct Hok as [v E]. rewrite E. eauto.
  - destruct Hok as [nd E]. rewrite semz_S, E.
    rewrite (rlevel_node id nd E) in Hf, Hl.
    destruct (Nat.ltb_spec (nlevel nd) lvl) as [Hlt|_]; [lia|].
    destruct (all_lo c lvl (nlevel nd - lvl)); [|eauto].
    destruct (child_exists id nd (c (nlevel nd)) E (Hc _)) as [e He]. rewrite He.
    destruct (child_nth id nd _ e E He) as [Hoe Hle].
    pose proof (rlevel_le (eref e)).
    apply IH; auto; lia.
Qed.

(** the interpreter chosen by [sem_edge] is total on existing references *)
Theorem sem_total : forall e c, ref_ok s (eref e) -> choice_ok s c ->
  exists v, sem_edge s e c = Some v.
Proof.
  intros e c Hok Hc. unfold sem_edge.
  pose proof (rlevel_le (eref e)) as Hle.
  assert (Hk : exists v, semk s (S (nlevels s)) (eref e) c = Some v)
    by (apply semk_total; auto; lia).
  destruct (s_kind s); try exact Hk.
  - destruct (semc_total (S (nlevels s)) e c Hok Hc ltac:(lia)) as [b Hb]. rewrite Hb. simpl. eauto.
  - destruct (semz_total (S (nlevels s)) 0 (eref e) c Hok Hc ltac:(lia) ltac:(lia)) as [b Hb].
    rewrite Hb. simpl. eauto.
Qed.

End Fuel.

(** ** Helpers shared by the canonicity proofs *)

(** [upd c l i]: the choice [c] with level [l] set to child index [i] *)
Definition upd (c : nat -> nat) (l i : nat) : nat -> nat :=
  fun x => if Nat.eqb x l then i else c x.

Lemma upd_same : forall c l i, upd c l i l = i.
Proof. intros. unfold upd. rewrite Nat.eqb_refl. reflexivity. Qed.

Lemma upd_other : forall c l i x, x <> l -> upd c l i x = c x.
Proof. intros c l i x Hx. unfold upd. destruct (Nat.eqb_spec x l); [contradiction | reflexivity]. Qed.

Lemma choice_ok_upd : forall s c l i, choice_ok s c -> i < arity (s_kind s) -> choice_ok s (upd c l i).
Proof. intros s c l i Hc Hi x. unfold upd. destruct (Nat.eqb x l); auto. Qed.

Lemma choice_ok_const : forall s i, i < 2 -> choice_ok s (fun _ => i).
Proof. intros s i Hi l. destruct (s_kind s); simpl; lia. Qed.

Lemma assoc_N_In : forall l k v, assoc_N l k = Some v -> In (k, v) l.
Proof.
  induction l as [|[a b] r IH]; intros k v E; simpl in E; [discriminate|].
  destruct (N.eqb_spec a k) as [->|Hne].
  - inversion E; subst. left. reflexivity.
  - right. apply IH. exact E.
Qed.

Lemma nodup_snd_inj : forall (l : list (N * N)) a b v,
  NoDup (map snd l) -> In (a, v) l -> In (b, v) l -> a = b.
Proof.
  induction l as [|[x y] r IH]; intros a b v Hnd Ha Hb; [destruct Ha|].
  simpl in Hnd. inversion Hnd as [|? ? Hy Hr]; subst.
  destruct Ha as [Ha|Ha], Hb as [Hb|Hb].
  - congruence.
  - inversion Ha; subst. exfalso. apply Hy. apply (in_map snd) in Hb. exact Hb.
  - inversion Hb; subst. exfalso. apply Hy. apply (in_map snd) in Ha. exact Ha.
  - eapply IH; eauto.
Qed.

(** distinct terminal ids carry distinct value codes *)
Lemma term_val_inj : forall s t1 t2 v, WF s ->
  term_val s t1 = Some v -> term_val s t2 = Some v -> t1 = t2.
Proof.
  intros s t1 t2 v H E1 E2. apply (nodup_snd_inj (s_terms s) t1 t2 v).
  - apply (wf_term_vals s H).
  - apply assoc_N_In. exact E1.
  - apply assoc_N_In. exact E2.
Qed.

Lemma list_eq_nth : forall (A : Type) (l1 l2 : list A),
  length l1 = length l2 ->
  (forall i a b, nth_error l1 i = Some a -> nth_error l2 i = Some b -> a = b) ->
  l1 = l2.
Proof.
  induction l1 as [|x l1 IH]; intros [|y l2] Hlen Hnth; simpl in Hlen; try discriminate; [reflexivity|].
  f_equal.
  - apply (Hnth 0); reflexivity.
  - apply IH; [lia|]. intros i a b Ha Hb. apply (Hnth (S i)); assumption.
Qed.

(** for the kinds without complement tags, an edge is determined by its reference *)
Lemma child_edge_eq : forall s id1 id2 n1 n2 a b, WF s -> s_kind s <> KBcdd ->
  find_node s id1 = Some n1 -> find_node s id2 = Some n2 ->
  In a (nchildren n1) -> In b (nchildren n2) -> eref a = eref b -> a = b.
Proof.
  intros s id1 id2 n1 n2 a b H Hk E1 E2 Ha Hb Hr. apply edge_ext; [exact Hr|].
  rewrite (wf_tags s H Hk id1 n1 a E1 Ha), (wf_tags s H Hk id2 n2 b E2 Hb). reflexivity.
Qed.

(** ** The kind-specific condition on terminals ([terms_kind_b], DD/TableExtra.v) *)

Definition terms_kind (s : snap) : Prop :=
  match s_kind s with
  | KBcdd => length (s_terms s) <= 1
  | KZbdd => forall p, In p (s_terms s) -> snd p = 0%N \/ snd p = 1%N
  | _ => True
  end.

Lemma terms_kind_b_spec : forall s, terms_kind_b s = true <-> terms_kind s.
Proof.
  intros s. unfold terms_kind_b, terms_kind.
  destruct (s_kind s); try (split; auto; fail).
  - apply Nat.leb_le.
  - rewrite forallb_forall. split; intros Hp p Hin; specialize (Hp p Hin).
    + apply N.leb_le in Hp. lia.
    + apply N.leb_le. lia.
Qed.

Lemma bcdd_one_term : forall s t1 t2 v1 v2, s_kind s = KBcdd -> terms_kind s ->
  term_val s t1 = Some v1 -> term_val s t2 = Some v2 -> t1 = t2.
Proof.
  intros s t1 t2 v1 v2 Hk Ht E1 E2. unfold terms_kind in Ht. rewrite Hk in Ht.
  apply assoc_N_In in E1. apply assoc_N_In in E2.
  destruct (s_terms s) as [|x [|y r]]; simpl in *.
  - destruct E1.
  - destruct E1 as [E1|[]], E2 as [E2|[]]. congruence.
  - lia.
Qed.

Lemma zbdd_term_code : forall s t v, s_kind s = KZbdd -> terms_kind s ->
  term_val s t = Some v -> v = 0%N \/ v = 1%N.
Proof.
  intros s t v Hk Ht E. unfold terms_kind in Ht. rewrite Hk in Ht.
  apply assoc_N_In in E. apply (Ht (t, v) E).
Qed.

(** ** Reference counts (C05) *)

Definition getc (m : PositiveMap.t N) (id : positive) : N :=
  match PositiveMap.find id m with Some x => x | None => 0%N end.

(** number of entries of [l] that point to the inner node [id] *)
Definition refs_to (id : positive) (l : list ref) : nat := count_occ ref_eq_dec l (RN id).

(** the references held by the handle list, and by the children of all stored nodes *)
Definition handle_refs (s : snap) : list ref :=
  map (fun h : N * edge => eref (snd h)) (s_handles s).

Definition child_refs (s : snap) : list ref :=
  flat_map (fun p : positive * node => map eref (nchildren (snd p)))
           (PositiveMap.elements (s_nodes s)).

Lemma child_refs_In : forall s r,
  In r (child_refs s) <->
  exists id nd e, find_node s id = Some nd /\ In e (nchildren nd) /\ eref e = r.
Proof.
  intros s r. unfold child_refs. rewrite in_flat_map. split.
  - intros [[id nd] [Hp Hr]]. simpl in Hr. apply in_map_iff in Hr. destruct Hr as [e [He1 He2]].
    exists id, nd, e. split; [apply find_node_elements; exact Hp | auto].
  - intros [id [nd [e [E [He Hr]]]]]. exists (id, nd). split; [apply find_node_elements; exact E|].
    simpl. apply in_map_iff. exists e. auto.
Qed.

(** the reference count of every stored node is the number of its owners:
    handle entries, [extra] entries and child edges of stored nodes *)
Definition rc_exact (s : snap) (extra : list edge) : Prop :=
  forall id nd, find_node s id = Some nd ->
    nrc nd = N.of_nat (refs_to id (handle_refs s) + refs_to id (map eref extra)
                       + refs_to id (child_refs s)).

Lemma bump_get : forall m r id,
  getc (bump m r) id = (getc m id + N.of_nat (refs_to id [r]))%N.
Proof.
  intros m r id. unfold refs_to, getc. simpl count_occ.
  destruct r as [t|j]; simpl bump.
  - destruct (ref_eq_dec (RT t) (RN id)) as [E|_]; [discriminate|]. simpl. lia.
  - destruct (ref_eq_dec (RN j) (RN id)) as [E|Hne].
    + inversion E; subst j. rewrite PositiveMap.gss. simpl. lia.
    + rewrite PositiveMap.gso by congruence. simpl. lia.
Qed.

Lemma refs_to_cons : forall id r l, refs_to id (r :: l) = refs_to id [r] + refs_to id l.
Proof.
  intros id r l. unfold refs_to. simpl. destruct (ref_eq_dec r (RN id)); reflexivity.
Qed.

Lemma refs_to_app : forall id l1 l2, refs_to id (l1 ++ l2) = refs_to id l1 + refs_to id l2.
Proof. intros. unfold refs_to. apply count_occ_app. Qed.

Lemma fold_bump_get : forall l m id,
  getc (fold_left bump l m) id = (getc m id + N.of_nat (refs_to id l))%N.
Proof.
  induction l as [|r l IH]; intros m id; simpl fold_left.
  - unfold refs_to. simpl. lia.
  - rewrite IH, bump_get, (refs_to_cons id r l), Nat2N.inj_add. lia.
Qed.

Lemma fold_left_map_arg : forall (A B C : Type) (f : A -> B -> A) (g : C -> B) l a,
  fold_left (fun m x => f m (g x)) l a = fold_left f (map g l) a.
Proof. induction l as [|x l IH]; intros a; simpl; [reflexivity | apply IH]. Qed.

Lemma fold_left_flat : forall (A B C : Type) (f : A -> B -> A) (g : C -> list B) l a,
  fold_left (fun m p => fold_left f (g p) m) l a = fold_left f (flat_map g l) a.
Proof.
  induction l as [|x l IH]; intros a; simpl; [reflexivity|].
  rewrite fold_left_app. apply IH.
Qed.

Lemma count_refs_get : forall s extra id,
  getc (count_refs s extra) id =
  N.of_nat (refs_to id (handle_refs s) + refs_to id (map eref extra) + refs_to id (child_refs s)).
Proof.
  intros s extra id. unfold count_refs.
  rewrite (fold_left_map_arg _ _ _ bump (fun h : N * edge => eref (snd h))).
  rewrite (fold_left_map_arg _ _ _ bump eref extra).
  assert (Hin : forall l m,
    fold_left (fun m p => fold_left (fun m' e => bump m' (eref e)) (nchildren (snd p)) m) l m =
    fold_left bump (flat_map (fun p : positive * node => map eref (nchildren (snd p))) l) m).
  { intros l m. rewrite <- (fold_left_flat _ _ _ bump).
    revert m. induction l as [|x l IH]; intros m; simpl; [reflexivity|].
    rewrite (fold_left_map_arg _ _ _ bump eref). apply IH. }
  rewrite Hin. rewrite !fold_bump_get. unfold getc at 1. rewrite PositiveMap.gempty.
  fold (handle_refs s). fold (child_refs s). rewrite !Nat2N.inj_add. lia.
Qed.

Theorem rc_exact_b_spec : forall s extra, rc_exact_b s extra = true <-> rc_exact s extra.
Proof.
  intros s extra. unfold rc_exact_b, rc_exact. rewrite forallb_forall. split.
  - intros Hall id nd E. apply find_node_elements in E. specialize (Hall (id, nd) E). simpl in Hall.
    apply N.eqb_eq in Hall. rewrite Hall. apply (count_refs_get s extra id).
  - intros Hall [id nd] Hin. apply find_node_elements in Hin. simpl. apply N.eqb_eq.
    rewrite (Hall id nd Hin). symmetry. apply (count_refs_get s extra id).
Qed.

Lemma no_dead_b_spec : forall s,
  no_dead_b s = true <-> forall id nd, find_node s id = Some nd -> nrc nd <> 0%N.
Proof.
  intros s. unfold no_dead_b. rewrite forallb_forall. split.
  - intros Hall id nd E. apply find_node_elements in E. specialize (Hall (id, nd) E). simpl in Hall.
    apply negb_true_iff in Hall. apply N.eqb_neq. exact Hall.
  - intros Hall [id nd] Hin. apply find_node_elements in Hin. simpl.
    apply negb_true_iff. apply N.eqb_neq. apply (Hall id nd Hin).
Qed.

(** reachability through child edges from a list of root references *)
Inductive reachable (s : snap) (roots : list ref) : ref -> Prop :=
| reach_root : forall r, In r roots -> reachable s roots r
| reach_child : forall id nd e,
    reachable s roots (RN id) -> find_node s id = Some nd -> In e (nchildren nd) ->
    reachable s roots (eref e).

Lemma refs_to_pos_In : forall id l, 0 < refs_to id l -> In (RN id) l.
Proof. intros id l Hp. apply (count_occ_In ref_eq_dec). exact Hp. Qed.

(** with exact counts and no node of count 0, every stored node is reachable
    from a handle or an [extra] owner (top-down induction on the level: a node
    of the top-most populated level has no parent) *)
Theorem no_dead_reachable : forall s extra, WF s ->
  rc_exact_b s extra = true -> no_dead_b s = true ->
  forall id nd, find_node s id = Some nd ->
    reachable s (handle_refs s ++ map eref extra) (RN id).
Proof.
  intros s extra H Hrc Hnd. apply rc_exact_b_spec in Hrc.
  pose proof (proj1 (no_dead_b_spec s) Hnd) as Hnz.
  assert (Hind : forall k id nd, nlevel nd = k -> find_node s id = Some nd ->
            reachable s (handle_refs s ++ map eref extra) (RN id)).
  { induction k as [k IH] using lt_wf_ind. intros id nd Hk E.
    pose proof (Hrc id nd E) as Hc. pose proof (Hnz id nd E) as Hz.
    destruct (refs_to id (handle_refs s)) as [|a] eqn:Ea.
    - destruct (refs_to id (map eref extra)) as [|b] eqn:Eb.
      + destruct (refs_to id (child_refs s)) as [|c] eqn:Ec.
        * exfalso. apply Hz. rewrite Hc. reflexivity.
        * assert (Hin : In (RN id) (child_refs s)) by (apply refs_to_pos_In; lia).
          apply child_refs_In in Hin. destruct Hin as [pid [pnd [e [Ep [He Hr]]]]].
          destruct (wf_child s H pid pnd e Ep He) as [_ Hlt].
          rewrite Hr, (rlevel_node s id nd E) in Hlt.
          rewrite <- Hr. apply (reach_child s _ pid pnd e); auto.
          apply (IH (nlevel pnd) ltac:(lia) pid pnd eq_refl Ep).
      + apply reach_root. apply in_or_app. right. apply refs_to_pos_In. lia.
    - apply reach_root. apply in_or_app. left. apply refs_to_pos_In. lia. }
  intros id nd E. apply (Hind (nlevel nd) id nd eq_refl E).
Qed.

(** [WF] plus the terminal condition: the single hypothesis of the C01 theorems *)
Definition WFfull (s : snap) : Prop := WF s /\ terms_kind s.

Theorem wf_full_b_spec : forall s, wf_full_b s = true <-> WFfull s.
Proof.
  intros s. unfold wf_full_b, WFfull.
  rewrite andb_true_iff, wf_b_spec, terms_kind_b_spec. reflexivity.
Qed.

(** ** The hypotheses are satisfiable: a BDD with 2 levels, 3 inner nodes, one handle *)

Definition ex_edge (r : ref) : edge := mkEdge r false.

Definition ex_snap : snap :=
  mkSnap KBdd
    (PositiveMap.add 3%positive (mkNode 0 [ex_edge (RN 1); ex_edge (RN 2)] 0 1)
    (PositiveMap.add 2%positive (mkNode 1 [ex_edge (RT 0); ex_edge (RT 1)] 1 1)
    (PositiveMap.add 1%positive (mkNode 1 [ex_edge (RT 1); ex_edge (RT 0)] 1 1)
       (PositiveMap.empty node))))
    [(0%N, 0%N); (1%N, 1%N)]
    [1; 0] [1; 0]
    [(0%N, ex_edge (RN 3))].

Example ex_snap_wf_b : wf_b ex_snap = true.
Proof. vm_compute. reflexivity. Qed.

Example ex_snap_terms_kind_b : terms_kind_b ex_snap = true.
Proof. vm_compute. reflexivity. Qed.

Example ex_snap_WF : WF ex_snap.
Proof. apply wf_b_spec. exact ex_snap_wf_b. Qed.

Example ex_snap_WFfull : WFfull ex_snap.
Proof. apply wf_full_b_spec. vm_compute. reflexivity. Qed.

Example ex_snap_rc_exact_b : rc_exact_b ex_snap [] = true.
Proof. vm_compute. reflexivity. Qed.

Example ex_snap_no_dead_b : no_dead_b ex_snap = true.
Proof. vm_compute. reflexivity. Qed.

(* the handle denotes "level 0 <-> level 1": code 1 on (then, then), 0 on (then, else) *)
Example ex_snap_sem :
  sem_edge ex_snap (ex_edge (RN 3)) (fun _ => 0) = Some 1%N /\
  sem_edge ex_snap (ex_edge (RN 3)) (fun l => l) = Some 0%N.
Proof. vm_compute. split; reflexivity. Qed.

(** the BCDD / ZBDD hypotheses ([s_kind], [terms_kind]) are satisfiable too *)

(* x0 xor x1 as a complemented edge to "x0 <-> x1"; one terminal *)
Definition ex_bcdd : snap :=
  mkSnap KBcdd
    (PositiveMap.add 2%positive (mkNode 0 [mkEdge (RN 1) false; mkEdge (RN 1) true] 0 1)
    (PositiveMap.add 1%positive (mkNode 1 [mkEdge (RT 0) false; mkEdge (RT 0) true] 1 2)
       (PositiveMap.empty node)))
    [(0%N, 1%N)]
    [0; 1] [0; 1]
    [(0%N, mkEdge (RN 2) true)].

Example ex_bcdd_ok :
  wf_full_b ex_bcdd = true /\ rc_exact_b ex_bcdd [] = true /\ no_dead_b ex_bcdd = true /\
  sem_edge ex_bcdd (mkEdge (RN 2) true) (fun l => l) = Some 1%N.
Proof. vm_compute. repeat split; reflexivity. Qed.

(* the family { {level 0, level 1}, {} } *)
Definition ex_zbdd : snap :=
  mkSnap KZbdd
    (PositiveMap.add 2%positive (mkNode 0 [ex_edge (RN 1); ex_edge (RT 1)] 0 1)
    (PositiveMap.add 1%positive (mkNode 1 [ex_edge (RT 1); ex_edge (RT 0)] 1 1)
       (PositiveMap.empty node)))
    [(0%N, 0%N); (1%N, 1%N)]
    [0; 1] [0; 1]
    [(0%N, ex_edge (RN 2))].

Example ex_zbdd_ok :
  wf_full_b ex_zbdd = true /\ rc_exact_b ex_zbdd [] = true /\ no_dead_b ex_zbdd = true /\
  sem_edge ex_zbdd (ex_edge (RN 2)) (fun _ => 0) = Some 1%N /\
  sem_edge ex_zbdd (ex_edge (RN 2)) (fun _ => 1) = Some 1%N /\
  sem_edge ex_zbdd (ex_edge (RN 2)) (fun l => l) = Some 0%N.
Proof. vm_compute. repeat split; reflexivity. Qed.
