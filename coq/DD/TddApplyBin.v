(** DD/TddApplyBin.v — [terminal_bin] against the fixed tables and its lifting [apply_bin]
    (part of the proofs about the model DD/Tdd.v, property C11; re-exported by DD/TddProofs.v). *)
From Coq Require Import Bool Arith List Lia NArith ZArith.
From OxiVerif Require Import DD.Tdd DD.TddTables DD.TddBasic.
Import ListNotations.

(* ------------------------------------------------------------------------ *)
(** * 4. [terminal_bin] against the fixed tables *)

(** What an [Operation] denotes under assignment [a] (a [Binary] is left to
    the caller: it denotes the table of its operator on its operands). *)
Definition op_denotes (o : operation) (a : assignment) : tri :=
  match o with
  | Done r => sem r a
  | ONot x => k_not (sem x a)
  | Binary o x y => table o (sem x a) (sem y a)
  end.

Section EdgeOrder.
Variable gt : tdd -> tdd -> bool.
Local Arguments sem : simpl never.

Lemma leaf_tests_fail : forall f g, f <> g ->
  is_leaf TF f = false -> is_leaf TF g = false -> is_leaf TT f = false -> is_leaf TT g = false ->
  is_terminal f = false \/ is_terminal g = false.
Proof.
  intros [[]|lf tf uf ef] [[]|lg tg ug eg] Hne; simpl; try discriminate; auto. congruence.
Qed.

(** Every arm of [terminal_bin] at once.  The operands of a [Binary] answer are
    swapped only for commutative operators, so the pair is a sound cache key. *)
Theorem terminal_bin_arms : forall op f g,
  match terminal_bin gt op f g with
  | Done r =>
    (r = f \/ r = g \/ exists v, r = Leaf v) /\ forall a, sem r a = table op (sem f a) (sem g a)
  | ONot x => (x = f \/ x = g) /\ forall a, k_not (sem x a) = table op (sem f a) (sem g a)
  | Binary o x y =>
    o = op /\ ((x = f /\ y = g) \/ (x = g /\ y = f /\ commutative op = true)) /\
    (is_terminal f = false \/ is_terminal g = false) /\ f <> g
  end.
Proof.
  intros op f g. unfold terminal_bin.
  destruct (tdd_eqb f g) eqn:Eq.
  { apply tdd_eqb_eq in Eq. subst g.
    destruct op; (split; [eauto|]); intros a; rewrite table_idem_cases; reflexivity. }
  apply tdd_eqb_neq in Eq.
  (* a test that succeeds tells the operand and ends in [Done] or [ONot] *)
  destruct (is_leaf TF f) eqn:F0, (is_leaf TF g) eqn:G0, (is_leaf TT f) eqn:F2, (is_leaf TT g) eqn:G2;
    repeat match goal with E : is_leaf _ _ = true |- _ => apply is_leaf_true in E; subst end;
    try discriminate; try congruence;
    [ destruct op; simpl; (split; [eauto|]); intros a;
      repeat match goal with |- context [sem ?x a] => is_var x; destruct (sem x a) end; reflexivity ..
    | pose proof (leaf_tests_fail f g Eq F0 G0 F2 G2) as Hn;
      destruct op; simpl; unfold norm; try destruct (gt f g); auto 6 ].
Qed.

Theorem terminal_bin_sound : forall op f g a,
  op_denotes (terminal_bin gt op f g) a = table op (sem f a) (sem g a).
Proof.
  intros op f g a. pose proof (terminal_bin_arms op f g) as A.
  destruct (terminal_bin gt op f g) as [o x y|x|r]; simpl; [|apply A|apply A].
  destruct A as (-> & [[-> ->]|(-> & -> & Hc)] & _); [reflexivity | apply table_comm, Hc].
Qed.

(** On terminals [terminal_bin] never asks for an expansion, and its result is
    the table entry (8 operators x 9 operand pairs, by computation). *)
Theorem terminal_bin_leaves : forall op x y,
  match terminal_bin gt op (Leaf x) (Leaf y) with
  | Done r => r = Leaf (table op x y)
  | ONot r => apply_not r = Leaf (table op x y)
  | Binary _ _ _ => False
  end.
Proof. intros [] [] []; reflexivity. Qed.

Theorem terminal_bin_key_sound : forall op f g o x y,
  terminal_bin gt op f g = Binary o x y ->
  o = op /\
  ((x = f /\ y = g) \/ (x = g /\ y = f /\ commutative op = true)) /\
  (is_terminal f = false \/ is_terminal g = false) /\
  f <> g.
Proof.
  intros op f g o x y E. pose proof (terminal_bin_arms op f g) as A. rewrite E in A. exact A.
Qed.

(* ------------------------------------------------------------------------ *)
(** * 5. [apply_bin]: lifting to all diagrams by induction *)

Theorem apply_bin_sem : forall fuel op f g r,
  apply_bin gt fuel op f g = Some r ->
  forall a, sem r a = table op (sem f a) (sem g a).
Proof.
  induction fuel as [|k IH]; intros op f g r H a; simpl in H;
    pose proof (terminal_bin_sound op f g a) as Ht;
    destruct (terminal_bin gt op f g) as [o x y|x|h] eqn:Et;
    try (injection H as <-; simpl in Ht; rewrite <- Ht; auto using apply_not_sem; fail);
    try discriminate.
  destruct (lmin (level f) (level g)) as [lv|]; [|discriminate].
  destruct (apply_bin gt k op (cof lv TT f) (cof lv TT g)) as [t|] eqn:E1; [|discriminate].
  destruct (apply_bin gt k op (cof lv TU f) (cof lv TU g)) as [u|] eqn:E2; [|discriminate].
  destruct (apply_bin gt k op (cof lv TF f) (cof lv TF g)) as [e|] eqn:E3; [|discriminate].
  injection H as <-. rewrite mk_sem, sem_node.
  rewrite (sem_cof lv f a), (sem_cof lv g a).
  destruct (a lv); [apply (IH _ _ _ _ E3)|apply (IH _ _ _ _ E2)|apply (IH _ _ _ _ E1)].
Qed.

Lemma lmin_some : forall f g,
  (is_terminal f = false \/ is_terminal g = false) ->
  exists lv, lmin (level f) (level g) = Some lv /\
             (level f = Some lv \/ level g = Some lv) /\
             (forall l, level f = Some l -> lv <= l) /\ (forall l, level g = Some l -> lv <= l).
Proof.
  intros [v|l t u e] [w|l' t' u' e'] H; simpl in *.
  - destruct H; discriminate.
  - exists l'. repeat split; auto; intros ? [= <-]; lia.
  - exists l. repeat split; auto; intros ? [= <-]; lia.
  - exists (Nat.min l l'). repeat split; try (intros ? [= <-]; lia).
    destruct (Nat.min_spec l l') as [[_ ->]|[_ ->]]; auto.
Qed.

(** With fuel [height f + height g] the expansion always terminates normally. *)
Theorem apply_bin_total : forall fuel op f g,
  height f + height g <= fuel -> exists r, apply_bin gt fuel op f g = Some r.
Proof.
  induction fuel as [|k IH]; intros op f g Hh; simpl;
    destruct (terminal_bin gt op f g) as [o x y|x|h] eqn:Et; eauto;
    apply terminal_bin_key_sound in Et; destruct Et as (_ & _ & Hn & _);
    destruct (lmin_some f g Hn) as (lv & Elv & Hl & _); try rewrite Elv.
  - exfalso. destruct Hl as [Hl|Hl].
    + destruct f; simpl in *; [discriminate|lia].
    + destruct g; simpl in *; [discriminate|lia].
  - assert (forall c, height (cof lv c f) + height (cof lv c g) <= k) as Hc.
    { intros c. pose proof (cof_height_le lv c f). pose proof (cof_height_le lv c g).
      destruct Hl as [Hl|Hl]; [pose proof (cof_height_lt lv c f Hl)|pose proof (cof_height_lt lv c g Hl)]; lia. }
    destruct (IH op _ _ (Hc TT)) as [t ->]. destruct (IH op _ _ (Hc TU)) as [u ->].
    destruct (IH op _ _ (Hc TF)) as [e ->]. eauto.
Qed.

Lemma terminal_bin_result_wf : forall (P : tdd -> Prop) op f g,
  P f -> P g -> (forall v, P (Leaf v)) -> (forall x, P x -> P (apply_not x)) ->
  match terminal_bin gt op f g with
  | Done r => P r
  | ONot x => P (apply_not x)
  | Binary _ _ _ => True
  end.
Proof.
  intros P op f g Pf Pg Pl Pn. pose proof (terminal_bin_arms op f g) as A.
  destruct (terminal_bin gt op f g) as [o x y|x|r]; [exact I | |].
  - destruct A as [[->| ->] _]; auto.
  - destruct A as [[->|[->|[v ->]]] _]; auto.
Qed.

Theorem apply_bin_inv : forall P, inv_family P -> forall fuel op f g r n,
  P n f -> P n g -> apply_bin gt fuel op f g = Some r -> P n r.
Proof.
  intros P F. induction fuel as [|k IH]; intros op f g r n Pf Pg H; simpl in H;
    pose proof (terminal_bin_result_wf (P n) op f g Pf Pg (inv_leaf P F n)
                  (fun x => apply_not_inv P F x n)) as Hwf;
    destruct (terminal_bin gt op f g) as [o x y|x|h] eqn:Et;
    try (injection H as <-; exact Hwf); try discriminate.
  apply terminal_bin_key_sound in Et. destruct Et as (_ & _ & Hn & _).
  destruct (lmin_some f g Hn) as (lv & Elv & Hl & Hf & Hg). rewrite Elv in H.
  assert (Hc : forall c z, apply_bin gt k op (cof lv c f) (cof lv c g) = Some z -> P (S lv) z)
    by (intros c z; apply IH; [apply (inv_cof P F n), Hf | apply (inv_cof P F n), Hg]; assumption).
  destruct (apply_bin gt k op (cof lv TT f) (cof lv TT g)) as [t|] eqn:E1; [|discriminate].
  destruct (apply_bin gt k op (cof lv TU f) (cof lv TU g)) as [u|] eqn:E2; [|discriminate].
  destruct (apply_bin gt k op (cof lv TF f) (cof lv TF g)) as [e|] eqn:E3; [|discriminate].
  injection H as <-.
  destruct Hl as [Hl|Hl];
    [apply (inv_mk P F n lv _ _ _ f Pf Hl) | apply (inv_mk P F n lv _ _ _ g Pg Hl)]; eauto.
Qed.

(** Summary for the public entry point ([and_edge] etc. = [apply_bin] from the top). *)
Theorem apply_bin_auto_correct : forall op f g,
  exists r, apply_bin_auto gt op f g = Some r /\
    (forall a, sem r a = table op (sem f a) (sem g a)) /\
    (forall n, ordered_from n f -> ordered_from n g -> ordered_from n r) /\
    (reduced f -> reduced g -> reduced r) /\
    (forall n, below n f -> below n g -> below n r).
Proof.
  intros op f g. destruct (apply_bin_total (height f + height g) op f g (le_n _)) as [r Hr].
  exists r. unfold apply_bin_auto. split; [exact Hr|]. repeat split.
  - eapply apply_bin_sem; eauto.
  - intros n Of Og. exact (apply_bin_inv _ ordered_family _ _ _ _ _ n Of Og Hr).
  - intros Rf Rg. exact (apply_bin_inv _ reduced_family _ _ _ _ _ 0 Rf Rg Hr).
  - intros n Bf Bg. exact (apply_bin_inv _ (below_family n) _ _ _ _ _ 0 Bf Bg Hr).
Qed.

End EdgeOrder.
