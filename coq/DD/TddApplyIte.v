(** DD/TddApplyIte.v — the terminal short-cuts of [apply_ite_rec] against [ite3] and the lifting [apply_ite]
    (part of the proofs about the model DD/Tdd.v, property C11; re-exported by DD/TddProofs.v). *)
From Coq Require Import Bool Arith List Lia NArith ZArith.
From OxiVerif Require Import DD.Tdd DD.TddTables DD.TddBasic DD.TddApplyBin.
Import ListNotations.

(* ------------------------------------------------------------------------ *)
(** * 6. [apply_ite_rec]: every terminal short-cut against [ite3], then lifting *)

Definition sc_denotes (s : ite_sc) (a : assignment) : option tri :=
  match s with
  | SDone r => Some (sem r a)
  | SBin op x y => Some (table op (sem x a) (sem y a))
  | SNot x => Some (k_not (sem x a))
  | SRec => None
  end.

Section EdgeOrder.
Variable gt : tdd -> tdd -> bool.
Local Arguments sem : simpl never.

(** Each short-cut of [apply_ite_rec] (g == h, f == g -> or, f == h -> and,
    terminal f, terminal g -> or / imp_strict, terminal h -> imp / and,
    (F,T) -> not, (T,F) -> f, (U, terminal, terminal) -> U), for operands of
    any shape, denotes [ite3] applied pointwise. *)
Theorem ite_shortcut_sound : forall f g h a v,
  sc_denotes (ite_shortcut f g h) a = Some v -> v = ite3 (sem f a) (sem g a) (sem h a).
Proof.
  intros f g h a v. unfold ite_shortcut.
  destruct (tdd_eqb g h) eqn:Egh.
  { apply tdd_eqb_eq in Egh. subst h. simpl. intros [= <-]. rewrite ite3_same_branches. reflexivity. }
  destruct (tdd_eqb f g) eqn:Efg.
  { apply tdd_eqb_eq in Efg. subst g. simpl. intros [= <-]. rewrite ite3_cond_then. reflexivity. }
  destruct (tdd_eqb f h) eqn:Efh.
  { apply tdd_eqb_eq in Efh. subst h. simpl. intros [= <-]. rewrite ite3_cond_else. reflexivity. }
  destruct f as [[]|lf tf uf ef], g as [[]|lg tg ug eg], h as [[]|lh th uh eh];
    try (simpl in Egh; discriminate); try (simpl in Efg; discriminate); try (simpl in Efh; discriminate);
    simpl; try discriminate; intros [= <-];
    repeat match goal with |- context [sem (Node ?l ?t ?u ?e) a] => destruct (sem (Node l t u e) a) end;
    reflexivity.
Qed.

Lemma ite_shortcut_rec_inner : forall f g h,
  ite_shortcut f g h = SRec ->
  is_terminal f = false \/ is_terminal g = false \/ is_terminal h = false.
Proof.
  intros f g h. unfold ite_shortcut.
  destruct (tdd_eqb g h); [discriminate|]. destruct (tdd_eqb f g); [discriminate|].
  destruct (tdd_eqb f h); [discriminate|].
  destruct f as [[]|lf tf uf ef], g as [[]|lg tg ug eg], h as [[]|lh th uh eh]; simpl; auto; discriminate.
Qed.

Lemma ite_shortcut_wf : forall (P : tdd -> Prop) f g h,
  P f -> P g -> P h -> (forall v, P (Leaf v)) ->
  match ite_shortcut f g h with
  | SDone r => P r
  | SBin _ x y => P x /\ P y
  | SNot x => P x
  | SRec => True
  end.
Proof.
  intros P f g h Pf Pg Ph Pl. unfold ite_shortcut.
  destruct (tdd_eqb g h); [assumption|]. destruct (tdd_eqb f g); [auto|].
  destruct (tdd_eqb f h); [auto|].
  destruct f as [[]|lf tf uf ef], g as [[]|lg tg ug eg], h as [[]|lh th uh eh]; simpl; auto.
Qed.

Theorem apply_ite_sem : forall fuel f g h r,
  apply_ite gt fuel f g h = Some r ->
  forall a, sem r a = ite3 (sem f a) (sem g a) (sem h a).
Proof.
  induction fuel as [|k IH]; intros f g h r H a; simpl in H;
    pose proof (ite_shortcut_sound f g h a) as Hs;
    destruct (ite_shortcut f g h) as [r0|op x y|x|] eqn:Es; simpl in Hs;
    try (injection H as <-; rewrite <- (Hs _ eq_refl); auto using apply_not_sem; fail);
    try (rewrite <- (Hs _ eq_refl); eapply apply_bin_sem; exact H);
    try discriminate.
  destruct (lmin (lmin (level f) (level g)) (level h)) as [lv|]; [|discriminate].
  destruct (apply_ite gt k (cof lv TT f) (cof lv TT g) (cof lv TT h)) as [t|] eqn:E1; [|discriminate].
  destruct (apply_ite gt k (cof lv TU f) (cof lv TU g) (cof lv TU h)) as [u|] eqn:E2; [|discriminate].
  destruct (apply_ite gt k (cof lv TF f) (cof lv TF g) (cof lv TF h)) as [e|] eqn:E3; [|discriminate].
  injection H as <-. rewrite mk_sem, sem_node.
  rewrite (sem_cof lv f a), (sem_cof lv g a), (sem_cof lv h a).
  destruct (a lv); [apply (IH _ _ _ _ E3)|apply (IH _ _ _ _ E2)|apply (IH _ _ _ _ E1)].
Qed.

Lemma lmin3_some : forall f g h,
  (is_terminal f = false \/ is_terminal g = false \/ is_terminal h = false) ->
  exists lv, lmin (lmin (level f) (level g)) (level h) = Some lv /\
             (level f = Some lv \/ level g = Some lv \/ level h = Some lv) /\
             (forall l, level f = Some l -> lv <= l) /\ (forall l, level g = Some l -> lv <= l) /\
             (forall l, level h = Some l -> lv <= l).
Proof.
  intros f g h H.
  assert (Hsel : forall x y, lmin x y = x \/ lmin x y = y).
  { intros [x|] [y|]; simpl; auto. destruct (Nat.min_spec x y) as [[_ ->]|[_ ->]]; auto. }
  assert (Hle : forall x y lv l, lmin x y = Some lv -> (x = Some l \/ y = Some l) -> lv <= l).
  { intros [x|] [y|] lv l; simpl; intros [= <-] [[= <-]|[= <-]]; lia. }
  destruct (lmin (lmin (level f) (level g)) (level h)) as [lv|] eqn:E.
  - exists lv. split; [reflexivity|]. split.
    + destruct (Hsel (lmin (level f) (level g)) (level h)) as [E1|E1]; rewrite E1 in E; auto.
      destruct (Hsel (level f) (level g)) as [E2|E2]; rewrite E2 in E; auto.
    + destruct (lmin (level f) (level g)) as [m|] eqn:E2.
      * assert (lv <= m) by (apply (Hle _ _ _ _ E); auto).
        repeat split; intros l Hl.
        -- assert (m <= l) by (apply (Hle _ _ _ _ E2); auto). lia.
        -- assert (m <= l) by (apply (Hle _ _ _ _ E2); auto). lia.
        -- apply (Hle _ _ _ _ E); auto.
      * destruct (level f) eqn:Ef, (level g) eqn:Eg; simpl in E2; try discriminate.
        repeat split; intros l Hl; try discriminate. apply (Hle _ _ _ _ E); auto.
  - exfalso. destruct f, g, h; simpl in *; try discriminate.
    destruct H as [H|[H|H]]; discriminate.
Qed.

Theorem apply_ite_total : forall fuel f g h,
  height f + height g + height h <= fuel -> exists r, apply_ite gt fuel f g h = Some r.
Proof.
  induction fuel as [|k IH]; intros f g h Hh; simpl;
    destruct (ite_shortcut f g h) as [r0|op x y|x|] eqn:Es; eauto;
    try (apply apply_bin_total; apply le_n);
    apply ite_shortcut_rec_inner in Es;
    destruct (lmin3_some f g h Es) as (lv & Elv & Hl & _); try rewrite Elv.
  - exfalso. destruct Hl as [Hl|[Hl|Hl]];
      [destruct f|destruct g|destruct h]; simpl in *; try discriminate; lia.
  - assert (forall c, height (cof lv c f) + height (cof lv c g) + height (cof lv c h) <= k) as Hc.
    { intros c. pose proof (cof_height_le lv c f). pose proof (cof_height_le lv c g).
      pose proof (cof_height_le lv c h).
      destruct Hl as [Hl|[Hl|Hl]];
        [pose proof (cof_height_lt lv c f Hl)|pose proof (cof_height_lt lv c g Hl)
        |pose proof (cof_height_lt lv c h Hl)]; lia. }
    destruct (IH _ _ _ (Hc TT)) as [t ->]. destruct (IH _ _ _ (Hc TU)) as [u ->].
    destruct (IH _ _ _ (Hc TF)) as [e ->]. eauto.
Qed.

Theorem apply_ite_inv : forall P, inv_family P -> forall fuel f g h r n,
  P n f -> P n g -> P n h -> apply_ite gt fuel f g h = Some r -> P n r.
Proof.
  intros P F. induction fuel as [|k IH]; intros f g h r n Pf Pg Ph H; simpl in H;
    pose proof (ite_shortcut_wf (P n) f g h Pf Pg Ph (inv_leaf P F n)) as Hwf;
    destruct (ite_shortcut f g h) as [r0|op x y|x|] eqn:Es;
    try (injection H as <-; first [exact Hwf | exact (apply_not_inv P F _ n Hwf)]);
    try exact (apply_bin_inv gt P F _ _ _ _ _ n (proj1 Hwf) (proj2 Hwf) H);
    try discriminate.
  apply ite_shortcut_rec_inner in Es.
  destruct (lmin3_some f g h Es) as (lv & Elv & Hl & Hf & Hg & Hh). rewrite Elv in H.
  assert (Hc : forall c z,
            apply_ite gt k (cof lv c f) (cof lv c g) (cof lv c h) = Some z -> P (S lv) z)
    by (intros c z; apply IH;
        [apply (inv_cof P F n), Hf | apply (inv_cof P F n), Hg | apply (inv_cof P F n), Hh]; assumption).
  destruct (apply_ite gt k (cof lv TT f) (cof lv TT g) (cof lv TT h)) as [t|] eqn:E1; [|discriminate].
  destruct (apply_ite gt k (cof lv TU f) (cof lv TU g) (cof lv TU h)) as [u|] eqn:E2; [|discriminate].
  destruct (apply_ite gt k (cof lv TF f) (cof lv TF g) (cof lv TF h)) as [e|] eqn:E3; [|discriminate].
  injection H as <-.
  destruct Hl as [Hl|[Hl|Hl]];
    [apply (inv_mk P F n lv _ _ _ f Pf Hl) | apply (inv_mk P F n lv _ _ _ g Pg Hl)
    | apply (inv_mk P F n lv _ _ _ h Ph Hl)]; eauto.
Qed.

Theorem apply_ite_auto_correct : forall f g h,
  exists r, apply_ite_auto gt f g h = Some r /\
    (forall a, sem r a = ite3 (sem f a) (sem g a) (sem h a)) /\
    (forall n, ordered_from n f -> ordered_from n g -> ordered_from n h -> ordered_from n r) /\
    (reduced f -> reduced g -> reduced h -> reduced r) /\
    (forall n, below n f -> below n g -> below n h -> below n r).
Proof.
  intros f g h.
  destruct (apply_ite_total (height f + height g + height h) f g h (le_n _)) as [r Hr].
  exists r. unfold apply_ite_auto. split; [exact Hr|]. repeat split.
  - eapply apply_ite_sem; eauto.
  - intros n Of Og Oh. exact (apply_ite_inv _ ordered_family _ _ _ _ _ n Of Og Oh Hr).
  - intros Rf Rg Rh. exact (apply_ite_inv _ reduced_family _ _ _ _ _ 0 Rf Rg Rh Hr).
  - intros n Bf Bg Bh. exact (apply_ite_inv _ (below_family n) _ _ _ _ _ 0 Bf Bg Bh Hr).
Qed.

(** The default [ite_edge] of the trait computes a different function
    (witness: if = then = else = ... pointwise U, T, T). *)
Theorem apply_ite_default_refuted : exists f g h r a,
  apply_ite_default gt f g h = Some r /\ sem r a <> ite3 (sem f a) (sem g a) (sem h a).
Proof. exists (Leaf TU), (Leaf TT), (Leaf TT), (Leaf TU), (fun _ => TF). split; [reflexivity|discriminate]. Qed.

End EdgeOrder.
