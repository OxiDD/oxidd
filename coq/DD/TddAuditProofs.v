(** DD/TddAuditProofs.v — package TDDx: specifications of the audits of DD/TddAudit.v.

    C03: [td_wf3_b_spec] ([td_wf3_b] = [td_ok_b] = TdOK, as booleans on EVERY snapshot), [td_node3_shape].
    C05: [td_rc_b_spec], [td_rc_b_exact] (the ternary audit = the generic audit [rc_exact_b s []]),
         [td_no_dead_reachable], [td_dropall_empty].
    C01: [td_value_tfun], [all_asg_complete], [td_vtable_canon], [td_canon_tfun], [td_canon_handles].
    No axioms. *)
From Coq Require Import List NArith PArith Bool Arith Lia FMapPositive Btauto.
From OxiVerif Require Import Base.ListFacts DD.Table DD.TableExtra DD.TableProofs DD.Canon DD.Build DD.BuildProofs DD.Apply
  DD.ApplyProofs DD.Tdd DD.ApplyTdd DD.ApplyTddBase DD.ApplyTddProofs DD.ApplyTddTop DD.TddAudit.
Import ListNotations.

(** * The fixed tables *)

Lemma t3_not_spec : forall a, t3_not a = k_not a.
Proof. reflexivity. Qed.
Lemma t3_bin_spec : forall o a b, t3_bin o a b = table o a b.
Proof. reflexivity. Qed.
Lemma t3_ite_spec : forall a b c, t3_ite a b c = ite3 a b c.
Proof. reflexivity. Qed.

(** * C03: the invariant spelled out for ternary nodes *)

Lemma edge_eqb_untagged : forall a b, etag a = false -> etag b = false ->
  edge_eqb a b = ref_eqb (eref a) (eref b).
Proof. intros a b Ha Hb. unfold edge_eqb. rewrite Ha, Hb. simpl. apply andb_true_r. Qed.

Lemma td_node3_b_node_ok : forall s nd, s_kind s = KTdd -> td_node3_b s nd = node_ok_b s nd.
Proof.
  intros s nd K. unfold td_node3_b, node_ok_b, reduced_b, tags_ok_b. rewrite K. simpl arity.
  destruct (nchildren nd) as [|t [|u [|e [|x r]]]]; simpl; try reflexivity.
  unfold edge_eqb.
    destruct (etag t), (etag u), (etag e); simpl; rewrite ?andb_false_r, ?andb_true_r; try reflexivity;
      btauto.
Qed.

Theorem td_wf3_b_ok_b : forall s, td_wf3_b s = td_ok_b s.
Proof.
  intros s. unfold td_wf3_b, td_ok_b, wf_b, td_terms3_b.
  destruct (kind_eqb (s_kind s) KTdd) eqn:K.
  - assert (Hk : s_kind s = KTdd) by (destruct (s_kind s); simpl in K; congruence).
    assert (E1 : forallb (fun p : PositiveMap.key * node => td_node3_b s (snd p)) (PositiveMap.elements (s_nodes s))
                 = forallb (fun p : PositiveMap.key * node => node_ok_b s (snd p)) (PositiveMap.elements (s_nodes s))).
    { apply forallb_ext. intros p. apply td_node3_b_node_ok. exact Hk. }
    assert (E2 : td_handles_b s = handles_ok_b s).
    { unfold td_handles_b, handles_ok_b. rewrite Hk. reflexivity. }
    rewrite E1, E2. btauto.
  - simpl. rewrite !andb_false_r. reflexivity.
Qed.

Theorem td_wf3_b_spec : forall s, td_wf3_b s = true <-> TdOK s.
Proof. intros s. rewrite td_wf3_b_ok_b. apply td_ok_b_spec. Qed.

(** what [td_node3_b] says of every stored node of a TdOK table, in Prop: exactly the
    children (true, unknown, false), untagged, stored, strictly below, NOT all three
    equal; and no second node with the same level and children *)
Theorem td_node3_shape : forall s id nd, TdOK s -> find_node s id = Some nd ->
  exists t u e, nchildren nd = [E t; E u; E e] /\ ~ (t = u /\ u = e) /\
    ref_ok s t /\ ref_ok s u /\ ref_ok s e /\
    nlevel nd < rlevel s t /\ nlevel nd < rlevel s u /\ nlevel nd < rlevel s e /\
    nstored nd = nlevel nd /\ nlevel nd < nlevels s.
Proof.
  intros s id nd B Ef. pose proof (to_wf s B) as H.
  destruct (dent_exists s (RN id) B (ex_intro _ nd Ef)) as [phi D].
  destruct (dent_children s id nd phi B D Ef) as [t [u [e [Ech [Hne K]]]]].
  destruct (K TT) as [Dt Lt], (K TU) as [Du Lu], (K TF) as [De Le].
  exists t, u, e. split; [exact Ech|]. split; [exact Hne|].
  split; [apply (proj1 Dt)|]. split; [apply (proj1 Du)|]. split; [apply (proj1 De)|].
  split; [exact Lt|]. split; [exact Lu|]. split; [exact Le|].
  split; [apply (wf_stored s H id nd Ef) | apply (wf_level s H id nd Ef)].
Qed.

Theorem td_unique_table : forall s id1 id2 n1 n2, TdOK s ->
  find_node s id1 = Some n1 -> find_node s id2 = Some n2 ->
  nlevel n1 = nlevel n2 -> nchildren n1 = nchildren n2 -> id1 = id2.
Proof. intros s id1 id2 n1 n2 B. apply (wf_unique s (to_wf s B)). Qed.

(** TdOK is the hypothesis of the generic theorems too *)
Theorem td_ok_wf_full : forall s, td_ok_b s = true -> wf_full_b s = true.
Proof.
  intros s Hb. pose proof (proj1 (td_ok_b_spec s) Hb) as B. unfold wf_full_b.
  rewrite (proj2 (wf_b_spec s) (to_wf s B)). unfold terms_kind_b. rewrite (to_kind s B). reflexivity.
Qed.

(** * C05: the reference-count audit for ternary nodes *)

Lemma b2n_ref_is : forall id r, b2n (ref_is id r) = refs_to id [r].
Proof.
  intros id r. unfold refs_to. simpl. destruct (ref_eq_dec r (RN id)) as [->|N].
  - simpl. rewrite Pos.eqb_refl. reflexivity.
  - destruct r as [t|j]; simpl; [reflexivity|].
    destruct (Pos.eqb j id) eqn:Ej; [apply Pos.eqb_eq in Ej; subst; congruence | reflexivity].
Qed.

Lemma td_handles_to_refs : forall s id, td_handles_to s id = refs_to id (handle_refs s).
Proof.
  intros s id. unfold td_handles_to, handle_refs.
  induction (s_handles s) as [|h r IH]; simpl; [reflexivity|].
  rewrite IH, b2n_ref_is. symmetry. apply refs_to_cons.
Qed.

Lemma td_node_refs_spec : forall id nd t u e, nchildren nd = [t; u; e] ->
  td_node_refs id nd = refs_to id (map eref (nchildren nd)).
Proof.
  intros id nd t u e Ech. unfold td_node_refs, children3. rewrite Ech. simpl map.
  rewrite !b2n_ref_is, (refs_to_cons id (eref t) (_ :: _)), (refs_to_cons id (eref u) (_ :: _)). lia.
Qed.

Lemma td_parents_to_refs : forall s id, TdOK s -> td_parents_to s id = refs_to id (child_refs s).
Proof.
  intros s id B. unfold td_parents_to, child_refs.
  assert (A : forall p, In p (PositiveMap.elements (s_nodes s)) -> exists t u e, nchildren (snd p) = [t; u; e]).
  { intros [j nd] Hp. apply find_node_elements in Hp. apply (td_children s j nd B Hp). }
  induction (PositiveMap.elements (s_nodes s)) as [|p r IH]; simpl; [reflexivity|].
  rewrite refs_to_app, IH by (intros q Hq; apply A; right; exact Hq).
  destruct (A p (or_introl eq_refl)) as [t [u [e Ech]]].
  rewrite (td_node_refs_spec id (snd p) t u e Ech). reflexivity.
Qed.

(** [td_rc_b] decides the counting equation for ternary nodes (no hypothesis) *)
Theorem td_rc_b_spec : forall s,
  td_rc_b s = true <->
  forall id nd, find_node s id = Some nd ->
    nrc nd = N.of_nat (td_handles_to s id + td_parents_to s id).
Proof.
  intros s. unfold td_rc_b. rewrite forallb_forall. split.
  - intros A id nd Ef. apply find_node_elements in Ef. specialize (A (id, nd) Ef). simpl in A.
    apply N.eqb_eq in A. exact A.
  - intros A [id nd] Hp. simpl. apply N.eqb_eq. apply A. apply find_node_elements. exact Hp.
Qed.

(** on a TDD table the ternary audit IS the generic audit of DD/Table.v (as booleans) *)
Theorem td_rc_b_exact : forall s, TdOK s -> td_rc_b s = rc_exact_b s [].
Proof.
  intros s B. apply eq_true_iff_eq. rewrite td_rc_b_spec, rc_exact_b_spec. unfold rc_exact.
  assert (Z : forall id, refs_to id (map eref []) = 0) by reflexivity.
  split; intros A id nd Ef; specialize (A id nd Ef); rewrite A;
    rewrite td_handles_to_refs, (td_parents_to_refs s id B), Z; f_equal; lia.
Qed.

(** the counting equation in terms of owners: handles holding the node and (true, unknown,
    false) child slots of stored nodes pointing to it *)
Theorem td_rc_owners : forall s, TdOK s -> td_rc_b s = true ->
  forall id nd, find_node s id = Some nd ->
    nrc nd = N.of_nat (refs_to id (handle_refs s) + refs_to id (child_refs s)).
Proof.
  intros s B R id nd Ef. rewrite (proj1 (td_rc_b_spec s) R id nd Ef), td_handles_to_refs, (td_parents_to_refs s id B).
  reflexivity.
Qed.

(** exact counts and no zero count (the state right after a collection): every stored node
    is reachable from a handle, i.e. the collection left exactly the referenced nodes *)
Theorem td_no_dead_reachable : forall s, TdOK s -> td_rc_b s = true -> no_dead_b s = true ->
  forall id nd, find_node s id = Some nd -> reachable s (handle_refs s) (RN id).
Proof.
  intros s B R D id nd Ef. rewrite (td_rc_b_exact s B) in R.
  pose proof (no_dead_reachable s [] (to_wf s B) R D id nd Ef) as X. simpl in X. rewrite app_nil_r in X. exact X.
Qed.

Lemma reachable_nil : forall s r, ~ reachable s [] r.
Proof. intros s r R. induction R as [r Hin|id nd e R IH Ef He]; [destruct Hin | exact IH]. Qed.

(** "drop every handle; gc()": nothing may remain *)
Theorem td_dropall_empty : forall s, TdOK s -> td_rc_b s = true -> no_dead_b s = true ->
  s_handles s = [] -> forall id, find_node s id = None.
Proof.
  intros s B R D Hh id. destruct (find_node s id) as [nd|] eqn:Ef; [|reflexivity]. exfalso.
  pose proof (td_no_dead_reachable s B R D id nd Ef) as X. unfold handle_refs in X. rewrite Hh in X.
  exact (reachable_nil s _ X).
Qed.

Theorem td_no_handles_empty_b_spec : forall s,
  td_no_handles_empty_b s = true <-> s_handles s = [] /\ forall id, find_node s id = None.
Proof.
  intros s. unfold td_no_handles_empty_b. split.
  - destruct (s_handles s) as [|h r]; [|discriminate].
    destruct (PositiveMap.elements (s_nodes s)) as [|p l] eqn:El; [|discriminate]. intros _. split; [reflexivity|].
    intros id. destruct (find_node s id) as [nd|] eqn:Ef; [|reflexivity].
    apply find_node_elements in Ef. rewrite El in Ef. destruct Ef.
  - intros [Hh A]. rewrite Hh. destruct (PositiveMap.elements (s_nodes s)) as [|[j nd] l] eqn:El; [reflexivity|].
    assert (X : find_node s j = Some nd) by (apply find_node_elements; rewrite El; left; reflexivity).
    rewrite A in X. discriminate.
Qed.

(** * C01: value tables over the assignments of the VARIABLES *)

Lemma td_choice_chc : forall s av l, td_choice s av l = chc (lvl_asg s av) l.
Proof. intros s av l. unfold td_choice, chc, lvl_asg. destruct (nth_error (s_l2v s) l); reflexivity. Qed.

(** the interpretation reads the choice function below [nlevels] only *)
Lemma semk_ext_below : forall s, WF s -> forall f r c c',
  (forall l, l < nlevels s -> c l = c' l) -> semk s f r c = semk s f r c'.
Proof.
  intros s H. induction f as [|f IH]; intros r c c' Hcc.
  - destruct r as [t|id]; [rewrite !semk_T; reflexivity | reflexivity].
  - destruct r as [t|id]; [rewrite !semk_T; reflexivity|].
    rewrite !semk_S. destruct (find_node s id) as [nd|] eqn:Ef; [|reflexivity].
    rewrite <- (Hcc (nlevel nd) (wf_level s H id nd Ef)).
    destruct (nth_error (nchildren nd) (c (nlevel nd))) as [e|]; [|reflexivity].
    apply IH. exact Hcc.
Qed.

(** [td_value] is total on a TdOK table and equals the function [tfun_of] of DD/ApplyTddTop.v *)
Theorem td_value_tfun : forall s r, TdOK s -> ref_ok s r ->
  forall av, td_value s r av = Some (tfun_of s r av).
Proof.
  intros s r B Hr av. destruct (dent_exists s r B Hr) as [phi D].
  rewrite (tfun_of_den s r phi D). unfold td_value.
  rewrite (semk_ext_below s (to_wf s B) _ r (td_choice s av) (chc (lvl_asg s av)))
    by (intros l _; apply td_choice_chc).
  rewrite (proj2 D (lvl_asg s av)). apply tdecode_tcode.
Qed.

Lemma td_value_ext : forall s r av av', TdOK s ->
  (forall v, v < nlevels s -> av v = av' v) -> td_value s r av = td_value s r av'.
Proof.
  intros s r av av' B A. unfold td_value.
  rewrite (semk_ext_below s (to_wf s B) _ r (td_choice s av) (td_choice s av')); [reflexivity|].
  intros l Hl. unfold td_choice. destruct (l2v_var s l (to_wf s B) Hl) as [v [E1 [_ Hv]]].
  rewrite E1, (A v Hv). reflexivity.
Qed.

(** every level assignment is induced by an assignment of the variables (below [nlevels]) *)
Definition var_asg (s : snap) (a : assignment) : nat -> tri :=
  fun v => match nth_error (s_v2l s) v with Some l => a l | None => TT end.

Lemma lvl_var_asg : forall s a l, WF s -> l < nlevels s -> lvl_asg s (var_asg s a) l = a l.
Proof.
  intros s a l H Hl. destruct (l2v_var s l H Hl) as [v [E1 [E2 _]]].
  unfold lvl_asg, var_asg. rewrite E1, E2. reflexivity.
Qed.

(** ** canonicity: equal references iff equal three-valued functions of the variables *)
Theorem td_canon_tfun : forall s r1 r2, TdOK s -> ref_ok s r1 -> ref_ok s r2 ->
  (r1 = r2 <-> forall av, tfun_of s r1 av = tfun_of s r2 av).
Proof.
  intros s r1 r2 B H1 H2. split; [intros ->; reflexivity|]. intros A.
  destruct (dent_exists s r1 B H1) as [phi1 D1]. destruct (dent_exists s r2 B H2) as [phi2 D2].
  apply (dent_canon s r1 r2 phi1 B D1). split; [exact H2|]. intros a.
  rewrite (proj2 D2 a). f_equal. f_equal.
  (* phi2 a = phi1 a: both are read off the variable assignment that [a] induces *)
  assert (P : forall r phi, DenT s r phi -> phi a = phi (lvl_asg s (var_asg s a))).
  { intros r phi D. apply tcode_inj. assert (X : Some (tcode (phi a)) = Some (tcode (phi (lvl_asg s (var_asg s a))))).
    { rewrite <- (proj2 D a), <- (proj2 D (lvl_asg s (var_asg s a))).
      apply (semk_ext_below s (to_wf s B)). intros l Hl. unfold chc.
      rewrite (lvl_var_asg s a l (to_wf s B) Hl). reflexivity. }
    congruence. }
  rewrite (P r2 phi2 D2), (P r1 phi1 D1).
  rewrite <- (tfun_of_den s r2 phi2 D2), <- (tfun_of_den s r1 phi1 D1). symmetry. apply A.
Qed.

(** ** the finite table decides it *)

Lemma all_asg_complete : forall n av, exists a, In a (all_asg n) /\ forall v, v < n -> a v = av v.
Proof.
  induction n as [|k IH]; intros av.
  - exists (fun _ => TT). split; [left; reflexivity | intros v Hv; lia].
  - destruct (IH av) as [a0 [I0 A0]]. exists (upd a0 k (av k)). split.
    + simpl. rewrite !in_app_iff, !in_map_iff.
      destruct (av k); [right; right | right; left | left]; exists a0; auto.
    + intros v Hv. unfold upd. destruct (Nat.eqb v k) eqn:Ev.
      * apply Nat.eqb_eq in Ev. subst. reflexivity.
      * apply Nat.eqb_neq in Ev. apply A0. lia.
Qed.

Lemma all_asg_length : forall n, length (all_asg n) = 3 ^ n.
Proof.
  induction n as [|k IH]; [reflexivity|].
  change (all_asg (S k)) with (map (fun a => upd a k TT) (all_asg k) ++ map (fun a => upd a k TU) (all_asg k)
                               ++ map (fun a => upd a k TF) (all_asg k)).
  rewrite !app_length, !map_length, Nat.pow_succ_r'. unfold assignment in *. rewrite IH. lia.
Qed.

Theorem td_vtable_length : forall s r, length (td_vtable s r) = 3 ^ nlevels s.
Proof. intros s r. unfold td_vtable. rewrite map_length. apply all_asg_length. Qed.

(** two references of a TdOK table are equal IFF their value tables over the 3^n
    assignments of the variables are equal: the comparison the driver performs on every
    snapshot decides equality of the three-valued functions *)
Theorem td_vtable_canon : forall s r1 r2, TdOK s -> ref_ok s r1 -> ref_ok s r2 ->
  (r1 = r2 <-> td_vtable s r1 = td_vtable s r2).
Proof.
  intros s r1 r2 B H1 H2. split; [intros ->; reflexivity|]. intros Et.
  apply (td_canon_tfun s r1 r2 B H1 H2). intros av.
  destruct (all_asg_complete (nlevels s) av) as [a [Ia Aa]].
  pose proof (ext_in_map Et a Ia) as X.
  rewrite (td_value_ext s r1 a av B Aa), (td_value_ext s r2 a av B Aa) in X.
  rewrite (td_value_tfun s r1 B H1), (td_value_tfun s r2 B H2) in X. congruence.
Qed.

(** no entry of the table is undefined *)
Theorem td_vtable_total : forall s r, TdOK s -> ref_ok s r -> ~ In None (td_vtable s r).
Proof.
  intros s r B Hr Hin. unfold td_vtable in Hin. apply in_map_iff in Hin. destruct Hin as [a [E _]].
  rewrite (td_value_tfun s r B Hr) in E. discriminate.
Qed.

Lemma td_handle_refs : forall s, TdOK s ->
  forall h1 h2, In h1 (s_handles s) -> In h2 (s_handles s) ->
  ref_ok s (eref (snd h1)) /\ ref_ok s (eref (snd h2)) /\
  (snd h1 = snd h2 <-> eref (snd h1) = eref (snd h2)).
Proof.
  intros s B h1 h2 I1 I2. pose proof (to_wf s B) as H.
  destruct (wf_handles s H h1 I1) as [O1 T1]. destruct (wf_handles s H h2 I2) as [O2 T2].
  assert (K : s_kind s <> KBcdd) by (rewrite (to_kind s B); discriminate).
  specialize (T1 K). specialize (T2 K).
  split; [exact O1|]. split; [exact O2|]. split; [intros ->; reflexivity|].
  destruct (snd h1) as [r1 t1], (snd h2) as [r2 t2]. simpl in *. intros ->. subst. reflexivity.
Qed.

Theorem td_canon_handles : forall s, TdOK s ->
  forall h1 h2, In h1 (s_handles s) -> In h2 (s_handles s) ->
  (snd h1 = snd h2 <-> td_vtable s (eref (snd h1)) = td_vtable s (eref (snd h2))).
Proof.
  intros s B h1 h2 I1 I2. destruct (td_handle_refs s B h1 h2 I1 I2) as [O1 [O2 E]].
  rewrite E. apply (td_vtable_canon s _ _ B O1 O2).
Qed.

Theorem td_canon_handles_tfun : forall s, TdOK s ->
  forall h1 h2, In h1 (s_handles s) -> In h2 (s_handles s) ->
  (snd h1 = snd h2 <-> forall av, tfun_of s (eref (snd h1)) av = tfun_of s (eref (snd h2)) av).
Proof.
  intros s B h1 h2 I1 I2. destruct (td_handle_refs s B h1 h2 I1 I2) as [O1 [O2 E]].
  rewrite E. apply (td_canon_tfun s _ _ B O1 O2).
Qed.

(** ** the order of the table: entry i belongs to the assignment whose value at variable v is
    digit v of i in base 3 (0 true, 1 unknown, 2 false) -- the index the driver uses *)
Definition tri_of_digit (d : nat) : tri := match d with 0 => TT | 1 => TU | _ => TF end.

Lemma digit_shift : forall k v i m, v < k -> ((i + m * 3 ^ k) / 3 ^ v) mod 3 = (i / 3 ^ v) mod 3.
Proof.
  intros k v i m Hv.
  assert (E : 3 ^ k = 3 ^ (k - v - 1) * 3 * 3 ^ v).
  { replace k with ((k - v - 1) + 1 + v) at 1 by lia. rewrite !Nat.pow_add_r. simpl. lia. }
  rewrite E. replace (i + m * (3 ^ (k - v - 1) * 3 * 3 ^ v)) with (i + (m * 3 ^ (k - v - 1) * 3) * 3 ^ v) by lia.
  rewrite Nat.div_add by (apply Nat.pow_nonzero; lia).
  rewrite Nat.mod_add by lia. reflexivity.
Qed.

Lemma digit_top : forall k i m, i < 3 ^ k -> m < 3 -> ((i + m * 3 ^ k) / 3 ^ k) mod 3 = m.
Proof.
  intros k i m Hi Hm. rewrite Nat.div_add by (apply Nat.pow_nonzero; lia).
  rewrite (Nat.div_small i) by exact Hi. rewrite Nat.add_0_l. apply Nat.mod_small. exact Hm.
Qed.

Lemma nth_error_blocks : forall (A : Type) (l0 l1 l2 : list A) N j m,
  length l0 = N -> length l1 = N -> j < N -> m < 3 ->
  nth_error (l0 ++ l1 ++ l2) (j + m * N) = nth_error (match m with 0 => l0 | 1 => l1 | _ => l2 end) j.
Proof.
  intros A l0 l1 l2 N j m L0 L1 Hj Hm. destruct m as [|[|[|m]]]; [| | |lia].
  - rewrite Nat.add_0_r. apply nth_error_app1. lia.
  - rewrite nth_error_app2 by lia. rewrite nth_error_app1 by lia. f_equal. lia.
  - rewrite nth_error_app2 by lia. rewrite nth_error_app2 by lia. f_equal. lia.
Qed.

Theorem all_asg_nth : forall n i, i < 3 ^ n ->
  exists a, nth_error (all_asg n) i = Some a /\
            forall v, a v = if Nat.ltb v n then tri_of_digit ((i / 3 ^ v) mod 3) else TT.
Proof.
  induction n as [|k IH]; intros i Hi.
  - simpl in Hi. assert (i = 0) by lia. subst. exists (fun _ => TT). split; [reflexivity|]. intros v. reflexivity.
  - (* [i = j + m * 3^k]: entry [j] of the table for [k] variables, in block [m] *)
    rewrite Nat.pow_succ_r' in Hi.
    assert (HN : 3 ^ k <> 0) by (apply Nat.pow_nonzero; lia).
    pose proof (Nat.div_mod i (3 ^ k) HN) as Ei. pose proof (Nat.mod_upper_bound i (3 ^ k) HN) as Hj.
    assert (Hm : i / 3 ^ k < 3) by (apply Nat.div_lt_upper_bound; lia).
    set (j := i mod 3 ^ k) in *. set (m := i / 3 ^ k) in *.
    replace i with (j + m * 3 ^ k) by lia. clear Ei Hi.
    destruct (IH j Hj) as [a0 [E0 A0]]. exists (upd a0 k (tri_of_digit m)). split.
    + change (all_asg (S k)) with (map (fun a => upd a k TT) (all_asg k) ++ map (fun a => upd a k TU) (all_asg k)
                                   ++ map (fun a => upd a k TF) (all_asg k)).
      rewrite (nth_error_blocks _ _ _ _ (3 ^ k) j m) by
        (try (rewrite map_length; apply all_asg_length); assumption).
      destruct m as [|[|[|m']]]; [| | |lia];
        apply (map_nth_error (fun a : nat -> tri => upd a k _)); exact E0.
    + intros v. unfold upd. destruct (Nat.eqb_spec v k) as [->|Hne].
      * rewrite (proj2 (Nat.ltb_lt k (S k)) (Nat.lt_succ_diag_r k)), (digit_top k j m Hj Hm). reflexivity.
      * rewrite A0. destruct (Nat.ltb_spec v k) as [Lv|Lv].
        -- rewrite (proj2 (Nat.ltb_lt v (S k))) by lia. rewrite (digit_shift k v j m Lv). reflexivity.
        -- rewrite (proj2 (Nat.ltb_ge v (S k))) by lia. reflexivity.
Qed.

Theorem td_vtable_nth : forall s r i, i < 3 ^ nlevels s ->
  exists a, nth_error (td_vtable s r) i = Some (td_value s r a) /\
            forall v, a v = if Nat.ltb v (nlevels s) then tri_of_digit ((i / 3 ^ v) mod 3) else TT.
Proof.
  intros s r i Hi. destruct (all_asg_nth (nlevels s) i Hi) as [a [E A]]. exists a. split; [|exact A].
  unfold td_vtable. apply (map_nth_error (td_value s r)). exact E.
Qed.

(** the table in one statement *)
Theorem td_vtable_shape : forall s r, TdOK s -> ref_ok s r ->
  length (td_vtable s r) = 3 ^ nlevels s /\ ~ In None (td_vtable s r) /\
  (forall av, td_value s r av = Some (tfun_of s r av)) /\
  forall i, i < 3 ^ nlevels s ->
    exists a, nth_error (td_vtable s r) i = Some (td_value s r a) /\
              forall v, a v = if Nat.ltb v (nlevels s) then tri_of_digit ((i / 3 ^ v) mod 3) else TT.
Proof.
  intros s r B Hr. split; [apply td_vtable_length|]. split; [apply (td_vtable_total s r B Hr)|].
  split; [apply (td_value_tfun s r B Hr) | apply td_vtable_nth].
Qed.
