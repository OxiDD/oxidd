(** DD/TddBasic.v — basic facts about diagrams (reduction rule, cofactors, orderedness, reducedness), constants, variables, negation
    (part of the proofs about the model DD/Tdd.v, property C11; re-exported by DD/TddProofs.v). *)
From Coq Require Import Bool Arith List Lia NArith ZArith.
From OxiVerif Require Import DD.Tdd DD.TddTables.
Import ListNotations.

(* ------------------------------------------------------------------------ *)
(** * 2. Basic facts about diagrams *)

Lemma tdd_eqb_eq : forall f g, tdd_eqb f g = true <-> f = g.
Proof.
  induction f as [v|l t IHt u IHu e IHe]; intros [w|l' t' u' e']; simpl;
    try (split; [discriminate|congruence]).
  - rewrite tri_eqb_eq. split; congruence.
  - rewrite !andb_true_iff, Nat.eqb_eq, IHt, IHu, IHe.
    split; [intros [[[-> ->] ->] ->]; reflexivity|intros H; inversion H; auto].
Qed.

Lemma tdd_eqb_refl : forall f, tdd_eqb f f = true.
Proof. intros f. apply tdd_eqb_eq. reflexivity. Qed.

Lemma tdd_eqb_neq : forall f g, tdd_eqb f g = false <-> f <> g.
Proof.
  intros f g. destruct (tdd_eqb f g) eqn:E.
  - apply tdd_eqb_eq in E. split; [discriminate|congruence].
  - split; [|reflexivity]. intros _ H. apply tdd_eqb_eq in H. congruence.
Qed.

Lemma is_leaf_true : forall v f, is_leaf v f = true <-> f = Leaf v.
Proof.
  intros v [w|l t u e]; simpl.
  - rewrite tri_eqb_eq. split; congruence.
  - split; discriminate.
Qed.

Lemma sem_node : forall l t u e a,
  sem (Node l t u e) a = match a l with TT => sem t a | TU => sem u a | TF => sem e a end.
Proof. reflexivity. Qed.

(** The reduction rule does not change the denoted function. *)
Lemma mk_sem : forall l t u e a, sem (mk l t u e) a = sem (Node l t u e) a.
Proof.
  intros. unfold mk. destruct (tdd_eqb t u && tdd_eqb u e) eqn:E; [|reflexivity].
  apply andb_true_iff in E. destruct E as [E1 E2].
  apply tdd_eqb_eq in E1. apply tdd_eqb_eq in E2. subst. simpl. destruct (a l); reflexivity.
Qed.

(** Ternary Shannon expansion w.r.t. an arbitrary level [lv]. *)
Lemma sem_cof : forall lv f a, sem f a = sem (cof lv (a lv) f) a.
Proof.
  intros lv [v|l t u e] a; simpl; [reflexivity|].
  destruct (Nat.eqb_spec l lv) as [->|]; [|reflexivity].
  destruct (a lv); reflexivity.
Qed.

(** ** Orderedness and reducedness *)

(** Levels strictly increase along every path and are all [>= n]. *)
Fixpoint ordered_from (n : nat) (f : tdd) : Prop :=
  match f with
  | Leaf _ => True
  | Node l t u e => n <= l /\ ordered_from (S l) t /\ ordered_from (S l) u /\ ordered_from (S l) e
  end.

Definition ordered (f : tdd) : Prop := ordered_from 0 f.

(** No node with three equal children. *)
Fixpoint reduced (f : tdd) : Prop :=
  match f with
  | Leaf _ => True
  | Node _ t u e => ~ (t = u /\ u = e) /\ reduced t /\ reduced u /\ reduced e
  end.

(** All levels are below [n] (the diagram lives in a manager with [n] levels). *)
Fixpoint below (n : nat) (f : tdd) : Prop :=
  match f with
  | Leaf _ => True
  | Node l t u e => l < n /\ below n t /\ below n u /\ below n e
  end.

Lemma ordered_from_mono : forall f n m, m <= n -> ordered_from n f -> ordered_from m f.
Proof. intros [v|l t u e] n m Hle; simpl; [auto|]. intros (H1 & H2). split; [lia|exact H2]. Qed.

Lemma ordered_from_level : forall f n k,
  ordered_from n f -> (forall l, level f = Some l -> k <= l) -> ordered_from k f.
Proof.
  intros [v|l t u e] n k; simpl; [auto|]. intros (H1 & H2) Hk. split; [|exact H2].
  apply Hk. reflexivity.
Qed.

Lemma mk_ordered : forall n l t u e, n <= l ->
  ordered_from (S l) t -> ordered_from (S l) u -> ordered_from (S l) e ->
  ordered_from n (mk l t u e).
Proof.
  intros. unfold mk. destruct (tdd_eqb t u && tdd_eqb u e).
  - apply ordered_from_mono with (S l); [lia|assumption].
  - simpl. auto.
Qed.

Lemma mk_reduced : forall l t u e, reduced t -> reduced u -> reduced e -> reduced (mk l t u e).
Proof.
  intros. unfold mk. destruct (tdd_eqb t u && tdd_eqb u e) eqn:E; [assumption|].
  simpl. repeat split; try assumption. intros [E1 E2].
  apply tdd_eqb_eq in E1. apply tdd_eqb_eq in E2. rewrite E1, E2 in E. discriminate.
Qed.

Lemma mk_below : forall n l t u e, l < n -> below n t -> below n u -> below n e -> below n (mk l t u e).
Proof.
  intros. unfold mk. destruct (tdd_eqb t u && tdd_eqb u e); [assumption|]. simpl. auto.
Qed.

Lemma cof_ordered : forall lv k f n,
  ordered_from n f -> (forall l, level f = Some l -> lv <= l) -> ordered_from (S lv) (cof lv k f).
Proof.
  intros lv k [v|l t u e] n; simpl; [auto|]. intros (H1 & Ht & Hu & He) Hl.
  specialize (Hl l eq_refl).
  destruct (Nat.eqb_spec l lv) as [->|Hne].
  - destruct k; assumption.
  - simpl. split; [lia|auto].
Qed.

Lemma cof_reduced : forall lv k f, reduced f -> reduced (cof lv k f).
Proof.
  intros lv k [v|l t u e]; simpl; [auto|]. intros (H0 & Ht & Hu & He).
  destruct (Nat.eqb l lv); [destruct k; assumption|]. simpl. auto.
Qed.

Lemma cof_below : forall lv k f n, below n f -> below n (cof lv k f).
Proof.
  intros lv k [v|l t u e] n; simpl; [auto|]. intros (H0 & Ht & Hu & He).
  destruct (Nat.eqb l lv); [destruct k; assumption|]. simpl. auto.
Qed.

Lemma cof_height_le : forall lv k f, height (cof lv k f) <= height f.
Proof.
  intros lv k [v|l t u e]; simpl; [lia|].
  destruct (Nat.eqb l lv); [destruct k; lia|simpl; lia].
Qed.

Lemma cof_height_lt : forall lv k f, level f = Some lv -> height (cof lv k f) < height f.
Proof.
  intros lv k [v|l t u e]; simpl; [discriminate|]. intros [= ->].
  rewrite Nat.eqb_refl. destruct k; lia.
Qed.

(** [ordered_from n], [reduced] and [below m] are preserved by the algorithms
    for one reason: each holds of the leaves, passes to the cofactors w.r.t. a
    level [lv] at or above the root, and comes back through [mk lv] when an
    operand is rooted at [lv].  [P n] is the property with its lower bound [n]
    on the levels ([S lv] for what hangs below a node at [lv]); [reduced] and
    [below m] ignore the bound. *)
Record inv_family (P : nat -> tdd -> Prop) : Prop := {
  inv_leaf : forall n v, P n (Leaf v);
  inv_cof : forall n lv k f, P n f -> (forall l, level f = Some l -> lv <= l) -> P (S lv) (cof lv k f);
  inv_mk : forall n lv t u e f, P n f -> level f = Some lv ->
    P (S lv) t -> P (S lv) u -> P (S lv) e -> P n (mk lv t u e)
}.

Lemma ordered_family : inv_family ordered_from.
Proof.
  split.
  - intros n v. exact I.
  - intros n lv k f. apply cof_ordered.
  - intros n lv t u e [v|l t' u' e']; simpl; [discriminate|].
    intros (Hn & _) [= ->]. apply mk_ordered, Hn.
Qed.

Lemma reduced_family : inv_family (fun _ => reduced).
Proof.
  split.
  - intros n v. exact I.
  - intros n lv k f R _. apply cof_reduced, R.
  - intros n lv t u e f _ _. apply mk_reduced.
Qed.

Lemma below_family : forall m, inv_family (fun _ => below m).
Proof.
  intros m. split.
  - intros n v. exact I.
  - intros n lv k f Bf _. apply cof_below, Bf.
  - intros n lv t u e [v|l t' u' e']; simpl; [discriminate|].
    intros (Hl & _) [= ->]. apply mk_below, Hl.
Qed.

(** The function of an ordered diagram does not depend on levels above it. *)
Lemma sem_indep : forall f n a l v, ordered_from n f -> l < n -> sem f (upd a l v) = sem f a.
Proof.
  induction f as [w|l0 t IHt u IHu e IHe]; intros n a l v Ho Hl; [reflexivity|].
  simpl in Ho. destruct Ho as (H1 & Ht & Hu & He).
  rewrite !sem_node. unfold upd at 1. destruct (Nat.eqb_spec l0 l); [lia|].
  rewrite (IHt (S l0)), (IHu (S l0)), (IHe (S l0)) by (assumption || lia). reflexivity.
Qed.

Lemma upd_same : forall a l v, upd a l v l = v.
Proof. intros. unfold upd. rewrite Nat.eqb_refl. reflexivity. Qed.

Lemma upd_other : forall a l v x, x <> l -> upd a l v x = a x.
Proof. intros. unfold upd. destruct (Nat.eqb_spec x l); congruence. Qed.

(* ------------------------------------------------------------------------ *)
(** * 3. Constants, variables, negation *)

Lemma const_sem : forall a, sem tdd_f a = TF /\ sem tdd_t a = TT /\ sem tdd_u a = TU.
Proof. intros; repeat split. Qed.

Lemma var_sem : forall l a, sem (tdd_var l) a = a l.
Proof. intros. unfold tdd_var. rewrite sem_node. destruct (a l); reflexivity. Qed.

Lemma const_var_wf :
  (forall v, ordered (Leaf v) /\ reduced (Leaf v)) /\
  (forall l, ordered (tdd_var l) /\ reduced (tdd_var l) /\ below (S l) (tdd_var l)).
Proof.
  split; [intros; split; exact I|]. intros l. unfold ordered, tdd_var. simpl.
  repeat split; try lia. intros [H _]. discriminate.
Qed.

Lemma apply_not_sem : forall f a, sem (apply_not f) a = k_not (sem f a).
Proof.
  induction f as [v|l t IHt u IHu e IHe]; intros a; [reflexivity|].
  simpl apply_not. rewrite mk_sem, !sem_node, IHt, IHu, IHe. destruct (a l); reflexivity.
Qed.

Lemma apply_not_inv : forall P, inv_family P -> forall f n, P n f -> P n (apply_not f).
Proof.
  intros P F. induction f as [v|l t IHt u IHu e IHe]; intros n Pf; [apply (inv_leaf P F)|].
  assert (Hc : forall k, P (S l) (cof l k (Node l t u e)))
    by (intros k; apply (inv_cof P F n l k _ Pf); intros ? [= <-]; apply le_n).
  simpl in Hc. rewrite Nat.eqb_refl in Hc.
  apply (inv_mk P F n l _ _ _ _ Pf eq_refl); [apply IHt, (Hc TT) | apply IHu, (Hc TU) | apply IHe, (Hc TF)].
Qed.

Lemma apply_not_ordered : forall f n, ordered_from n f -> ordered_from n (apply_not f).
Proof. exact (apply_not_inv _ ordered_family). Qed.

Lemma apply_not_reduced : forall f, reduced f -> reduced (apply_not f).
Proof. intros f. exact (apply_not_inv _ reduced_family f 0). Qed.

Lemma apply_not_below : forall f n, below n f -> below n (apply_not f).
Proof. intros f n. exact (apply_not_inv _ (below_family n) f 0). Qed.
