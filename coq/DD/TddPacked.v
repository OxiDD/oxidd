(** DD/TddPacked.v — the bit-packed [choices] vector of [eval_edge]
    (part of the proofs about the model DD/Tdd.v, property C11; re-exported by DD/TddProofs.v). *)
From Coq Require Import Bool Arith List Lia NArith ZArith.
From OxiVerif Require Import DD.Tdd DD.TddBasic.
Import ListNotations.

(* ------------------------------------------------------------------------ *)
(** * 9. The bit-packed [choices] vector of [eval_edge] *)

Section Packed.
Local Open Scope N_scope.
Arguments N.add : simpl never. Arguments N.sub : simpl never. Arguments N.mul : simpl never.
Arguments N.div : simpl never. Arguments N.modulo : simpl never. Arguments N.pow : simpl never.
Arguments N.shiftl : simpl never. Arguments N.shiftr : simpl never. Arguments N.ones : simpl never.

Lemma testbit_small : forall v i, v < 4 -> 2 <= i -> N.testbit v i = false.
Proof.
  intros v i Hv Hi. destruct (N.eq_dec v 0) as [->|Hn]; [apply N.bits_0|].
  apply N.bits_above_log2. apply N.lt_le_trans with 2; [|assumption].
  apply N.log2_lt_pow2; [lia|]. exact Hv.
Qed.

Lemma testbit_3 : forall i, N.testbit 3 i = (i <? 2).
Proof.
  intros i. change 3 with (N.ones 2). destruct (N.ltb_spec i 2).
  - apply N.ones_spec_low. assumption.
  - apply N.ones_spec_high. assumption.
Qed.

Lemma block_get_set_aux : forall b m m' v, m < 16 -> m' < 16 -> v < 4 ->
  N.land (N.shiftr (N.lor (N.shiftl v (2 * m))
                      (N.land b (N.ldiff (N.ones 32) (N.shiftl 3 (2 * m))))) (2 * m')) 3 =
  if m =? m' then v else N.land (N.shiftr b (2 * m')) 3.
Proof.
  intros b m m' v Hm Hm' Hv. apply N.bits_inj. intros i.
  rewrite N.land_spec, N.shiftr_spec', N.lor_spec, N.land_spec, N.ldiff_spec, testbit_3.
  destruct (N.ltb_spec i 2) as [Hi|Hi].
  - rewrite andb_true_r. rewrite (N.ones_spec_low 32 (i + 2 * m')) by lia. rewrite andb_true_l.
    destruct (N.eqb_spec m m') as [<-|Hne].
    + rewrite N.shiftl_spec_high' by lia. rewrite N.shiftl_spec_high' by lia.
      replace (i + 2 * m - 2 * m) with i by lia. rewrite testbit_3.
      destruct (N.ltb_spec i 2); [|lia]. simpl. rewrite andb_false_r, orb_false_r. reflexivity.
    + rewrite N.land_spec, N.shiftr_spec', testbit_3. destruct (N.ltb_spec i 2); [|lia]. rewrite andb_true_r.
      destruct (N.lt_ge_cases (i + 2 * m') (2 * m)) as [Hlt|Hge].
      * rewrite !N.shiftl_spec_low by assumption. simpl. rewrite andb_true_r. reflexivity.
      * rewrite !N.shiftl_spec_high' by assumption.
        rewrite (testbit_small v) by lia. rewrite testbit_3.
        destruct (N.ltb_spec (i + 2 * m' - 2 * m) 2); [lia|]. simpl. rewrite andb_true_r. reflexivity.
  - rewrite andb_false_r. destruct (m =? m').
    + symmetry. apply testbit_small; assumption.
    + rewrite N.land_spec, testbit_3. destruct (N.ltb_spec i 2); [lia|]. rewrite andb_false_r. reflexivity.
Qed.

Lemma block_get_set : forall b l l' v, v < 4 ->
  block_get (block_set b l v) l' =
  if (l mod elements_per_block =? l' mod elements_per_block) then v else block_get b l'.
Proof.
  intros. unfold block_get, block_set, elements_per_block.
  apply block_get_set_aux; try assumption; apply N.mod_upper_bound; discriminate.
Qed.

Lemma block_get_0 : forall l, block_get 0 l = 0.
Proof. intros. unfold block_get. rewrite N.shiftr_0_l. reflexivity. Qed.
End Packed.

Definition blk (l : nat) : nat := N.to_nat (N.of_nat l / elements_per_block).

Lemma blk_split : forall l l', blk l = blk l' ->
  (N.of_nat l mod elements_per_block = N.of_nat l' mod elements_per_block)%N -> l = l'.
Proof.
  unfold blk, elements_per_block. intros l l' H1 H2.
  pose proof (N.div_mod (N.of_nat l) 16 ltac:(discriminate)).
  pose proof (N.div_mod (N.of_nat l') 16 ltac:(discriminate)).
  assert (N.of_nat l / 16 = N.of_nat l' / 16)%N by lia. lia.
Qed.

Lemma blk_lt : forall l k, l < 16 * k -> blk l < k.
Proof.
  unfold blk, elements_per_block. intros l k H.
  assert (N.of_nat l / 16 < N.of_nat k)%N; [|lia].
  apply N.div_lt_upper_bound; [discriminate|lia].
Qed.

Lemma list_upd_length : forall A (l : list A) i x, length (list_upd l i x) = length l.
Proof. induction l as [|y r IH]; intros [|i] x; simpl; auto. Qed.

Lemma nth_list_upd : forall A (l : list A) i j x d, i < length l ->
  nth j (list_upd l i x) d = if Nat.eqb j i then x else nth j l d.
Proof.
  induction l as [|y r IH]; intros i j x d Hi; simpl in Hi; [lia|].
  destruct i as [|i], j as [|j]; simpl; auto. apply IH. lia.
Qed.

Definition repr (blocks : list N) (ch : nat -> nat) : Prop :=
  forall l, l < 16 * length blocks -> block_get (nth (blk l) blocks 0%N) (N.of_nat l) = N.of_nat (ch l).

Lemma choice_n_of : forall v, choice_n v = N.of_nat (choice_of v).
Proof. intros []; reflexivity. Qed.

Lemma pack_choices_repr : forall args blocks ch,
  repr blocks ch -> (forall l v, In (l, v) args -> l < 16 * length blocks) ->
  repr (pack_choices args blocks) (set_choices args ch) /\
  length (pack_choices args blocks) = length blocks.
Proof.
  induction args as [|[l0 v0] r IH]; intros blocks ch Hr Hb; simpl; [auto|].
  fold (blk l0).
  assert (Hl0 : l0 < 16 * length blocks) by (apply (Hb l0 v0); simpl; auto).
  pose proof (blk_lt _ _ Hl0) as Hk.
  set (blocks' := list_upd blocks (blk l0) _).
  assert (Hlen : length blocks' = length blocks) by apply list_upd_length.
  destruct (IH blocks' (fun x => if Nat.eqb x l0 then choice_of v0 else ch x)) as [H1 H2].
  - intros l Hl. rewrite Hlen in Hl. unfold blocks'. rewrite nth_list_upd by assumption.
    destruct (Nat.eqb_spec (blk l) (blk l0)) as [Hb1|Hb1].
    + rewrite block_get_set by (destruct v0; reflexivity).
      destruct (N.eqb_spec (N.of_nat l0 mod elements_per_block) (N.of_nat l mod elements_per_block)) as [Hm|Hm].
      * rewrite (blk_split l l0) by auto. rewrite Nat.eqb_refl. apply choice_n_of.
      * destruct (Nat.eqb_spec l l0) as [->|Hne]; [congruence|]. rewrite <- Hb1. apply Hr. assumption.
    + destruct (Nat.eqb_spec l l0) as [->|Hne]; [congruence|]. apply Hr. assumption.
  - intros l v Hin. rewrite Hlen. apply (Hb l v). simpl. auto.
  - split; [exact H1|]. rewrite H2. exact Hlen.
Qed.

Lemma eval_inner_packed_eq : forall f blocks ch n,
  repr blocks ch -> n <= 16 * length blocks -> below n f ->
  eval_inner_packed f blocks = eval_inner f ch.
Proof.
  induction f as [v|l t IHt u IHu e IHe]; intros blocks ch n Hr Hn Hb; [reflexivity|].
  simpl in Hb. destruct Hb as (Hl & Bt & Bu & Be). simpl. fold (blk l).
  rewrite Hr by lia.
  rewrite (IHt blocks ch n), (IHu blocks ch n), (IHe blocks ch n) by assumption.
  destruct (ch l) as [|[|k]]; try reflexivity.
  destruct (N.of_nat (S (S k))) as [|[p|p|]] eqn:E; try reflexivity; lia.
Qed.

Lemma pack_choices_init : forall n args, (forall l v, In (l, v) args -> l < n) ->
  let blocks := pack_choices args (repeat 0%N (N.to_nat ((N.of_nat n + 15) / elements_per_block))) in
  repr blocks (set_choices args (fun _ => 0)) /\ n <= 16 * length blocks.
Proof.
  intros n args Ha.
  set (k := N.to_nat ((N.of_nat n + 15) / elements_per_block)).
  assert (Hk : n <= 16 * k).
  { unfold k, elements_per_block.
    pose proof (N.div_mod (N.of_nat n + 15) 16 ltac:(discriminate)).
    pose proof (N.mod_upper_bound (N.of_nat n + 15) 16 ltac:(discriminate)). lia. }
  destruct (pack_choices_repr args (repeat 0%N k) (fun _ => 0)) as [H1 H2].
  - intros l Hl. rewrite nth_repeat. apply block_get_0.
  - intros l v Hin. rewrite repeat_length. specialize (Ha l v Hin). lia.
  - split; [exact H1|]. rewrite H2, repeat_length. exact Hk.
Qed.

(** where a mentioned level does not exist the code panics on the index *)
Theorem eval_packed_eq : forall n f args,
  below n f -> (forall l v, In (l, v) args -> l < n) -> eval_packed n f args = eval f args.
Proof.
  intros n f args Hb Ha. destruct (pack_choices_init n args Ha) as [H1 H2].
  apply (eval_inner_packed_eq f _ _ n H1 H2 Hb).
Qed.
