(** DD/TddTables.v — the fixed truth tables
    (part of the proofs about the model DD/Tdd.v, property C11; re-exported by DD/TddProofs.v). *)
From Coq Require Import Bool Arith List.
From OxiVerif Require Import DD.Tdd.
Import ListNotations.

(* ------------------------------------------------------------------------ *)
(** * 1. The fixed tables *)

Lemma tri_eqb_eq : forall a b, tri_eqb a b = true <-> a = b.
Proof. intros [] []; simpl; split; congruence. Qed.

Lemma tri_eqb_refl : forall a, tri_eqb a a = true.
Proof. intros []; reflexivity. Qed.

Lemma ite3_is_text : forall a b c, ite3 a b c = ite3_text a b c.
Proof. intros [] [] []; reflexivity. Qed.

(** the equality short-cuts of [apply_ite_rec] *)
Lemma ite3_same_branches : forall x y, ite3 x y y = y.
Proof. intros [] []; reflexivity. Qed.
Lemma ite3_cond_then : forall x z, ite3 x x z = k_or x z.
Proof. intros [] []; reflexivity. Qed.
Lemma ite3_cond_else : forall x y, ite3 x y x = k_and x y.
Proof. intros [] []; reflexivity. Qed.

(** Kleene's strong tables as min / max / 1-x over F < U < T. *)
Definition rank (a : tri) : nat := match a with TF => 0 | TU => 1 | TT => 2 end.

Lemma k_not_rank : forall a, rank (k_not a) = 2 - rank a.
Proof. intros []; reflexivity. Qed.
Lemma k_and_rank : forall a b, rank (k_and a b) = Nat.min (rank a) (rank b).
Proof. intros [] []; reflexivity. Qed.
Lemma k_or_rank : forall a b, rank (k_or a b) = Nat.max (rank a) (rank b).
Proof. intros [] []; reflexivity. Qed.
(** Lukasiewicz: a -> b = min(1, 1 - a + b), a <-> b = 1 - |a - b| (scaled by 2). *)
Lemma l_imp_rank : forall a b, rank (l_imp a b) = Nat.min 2 (2 - rank a + rank b).
Proof. intros [] []; reflexivity. Qed.
Lemma l_equiv_rank : forall a b,
  rank (l_equiv a b) = 2 - (Nat.max (rank a) (rank b) - Nat.min (rank a) (rank b)).
Proof. intros [] []; reflexivity. Qed.

Lemma table_idem_cases : forall op x,
  table op x x =
  match op with
  | And | Or => x
  | Nand | Nor => k_not x
  | Xor | ImpStrict => TF
  | Equiv | Imp => TT
  end.
Proof. intros [] []; reflexivity. Qed.

Definition commutative (op : binop) : bool :=
  match op with Imp | ImpStrict => false | _ => true end.

Lemma table_comm : forall op x y, commutative op = true -> table op x y = table op y x.
Proof. intros [] [] []; simpl; intros; try reflexivity; discriminate. Qed.

(** The default [ite_edge] of oxidd-core is a different function: it is not
    what the property calls ite (it is unreachable through TDD handles). *)
Lemma ite_default3_refuted : exists a b c, ite_default3 a b c <> ite3 a b c.
Proof. exists TU, TT, TT. discriminate. Qed.
