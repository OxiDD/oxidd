(** * The Boolean interface of the ZBDD kind, part 1 (model: DD/ZbddBool.v)

    - the tautology chain as looked up in the unique table: [ztaut_den]
      ([taut(l)] denotes all subsets of the levels [l, n)), [ztaut_of_den]
      (whatever edge denotes that family is the one the lookup finds -
      canonicity), [ztaut_extends], [ztaut_total], [zchain_after_add_vars];
    - the cache invariant [ZCacheOKB] for all nine operator codes; caches that
      differ by entries of some codes ([served_by]);
    - the families [pxor], [pite], [pop] with their identities, levels, the
      unfolding equations and cache entries of [zsymm] and [zapply_ite];
    - constants in the family reading ([zconst_ok]).

    Part 2: DD/ZbddXorProofs.v (union / intsec / diff, negation, xor, variables, [zdc_wrap_ok]), part 3: DD/ZbddIteProofs.v (ite, imp),
    part 4: DD/ZbddEvalProofs.v (eval, cofactors, the Boolean view, top-level
    statements), part 5: DD/ZbddRestrictProofs.v. *)

From Coq Require Import List NArith PArith Bool Arith Lia FMapPositive.
From OxiVerif Require Import DD.Table DD.TableExtra DD.TableProofs DD.Sem DD.Build DD.BuildProofs
  DD.Apply DD.ApplyProofs DD.CanonZbdd DD.FamSpec DD.FamSpecProofs DD.ZbddOps DD.ZbddOpsProofs
  DD.ZbddSubsetProofs DD.ZbddSoundProofs DD.ZbddVars DD.ZbddVarsProofs DD.ZbddBool.
Import ListNotations.

(** ** Denotations: decidable, canonical *)

Lemma zden_dec : forall s r P S, ZDen s r P -> P S \/ ~ P S.
Proof.
  intros s r P S [_ [F [_ Hm]]]. destruct (fmem S F) eqn:E.
  - left. apply Hm, fmem_spec. exact E.
  - right. intros HP. apply Hm, fmem_spec in HP. congruence.
Qed.

(** one edge per family *)
Lemma zden_canon : forall s r1 r2 P Q, ZbddOK s -> ZDen s r1 P -> ZDen s r2 Q -> peq P Q -> r1 = r2.
Proof.
  intros s r1 r2 P Q B [O1 [F1 [E1 H1]]] [O2 [F2 [E2 H2]]] Hpq.
  pose proof (zo_wf s B) as H. pose proof (zo_kind s B) as Hk.
  apply (canon_zbdd s H Hk (zbddok_terms_kind s B) r1 r2 O1 O2).
  intros c Hc. rewrite (bool_view s H Hk r1 c F1 O1 Hc E1), (bool_view s H Hk r2 c F2 O2 Hc E2).
  f_equal. unfold fam_bool. apply fmem_iff. rewrite H1, H2. apply Hpq.
Qed.

Lemma peq_refl : forall P, peq P P.
Proof. intros P S. reflexivity. Qed.

Lemma peq_sym : forall P Q, peq P Q -> peq Q P.
Proof. intros P Q H S. symmetry. apply H. Qed.

Lemma peq_trans : forall P Q R, peq P Q -> peq Q R -> peq P R.
Proof. intros P Q R H1 H2 S. rewrite (H1 S). apply H2. Qed.

(** a family whose members start at or below [l] decomposes at level [l] *)
Lemma pdecomp : forall l (R : fpred), (forall S, R S -> incr_from l S) ->
  peq R (node_pred l (fun T => R (l :: T)) (fun S => R S /\ incr_from (Datatypes.S l) S)).
Proof.
  intros l R Hi S. unfold node_pred. split.
  - intros HR. pose proof (Hi S HR) as HS. destruct S as [|x T]; [right; split; [exact HR | exact I]|].
    simpl in HS. destruct HS as [Hx HT]. destruct (Nat.eq_dec x l) as [->|Hne].
    + left. exists T. auto.
    + right. split; [exact HR|]. simpl. split; [lia | exact HT].
  - intros [[T [-> HT]]|[HR _]]; assumption.
Qed.

(** ** [pall]: all subsets of the levels [from, n) *)

Lemma pall_weaken : forall n l l' S, l' <= l -> pall n l S -> pall n l' S.
Proof. intros n l l' S Hl [Hi Hb]. split; [apply (incr_from_weaken S l); assumption | exact Hb]. Qed.

Lemma pall_true_levels : forall n c from, pall n from (true_levels c from (n - from)).
Proof.
  intros n c from. split; [apply true_levels_incr|].
  apply Forall_forall. intros x Hx. apply true_levels_range in Hx. lia.
Qed.

Lemma pall_cons : forall n l T, l < n -> (pall n l (l :: T) <-> pall n (S l) T).
Proof.
  intros n l T Hl. unfold pall. split.
  - intros [[_ Hi] Hb]. inversion Hb; subst. auto.
  - intros [Hi Hb]. split; [simpl; split; [lia | exact Hi] | constructor; assumption].
Qed.

(** ** The unique-table lookup *)

Lemma zlookup_some : forall s lvl hi lo r, zlookup s lvl hi lo = Some r ->
  exists id nd, r = RN id /\ find_node s id = Some nd /\ nlevel nd = lvl /\ nchildren nd = [E hi; E lo].
Proof.
  intros s lvl hi lo r. unfold zlookup. destruct (find_dup s lvl [E hi; E lo]) as [id|] eqn:Ed; [|discriminate].
  intros Hx. inversion Hx; subst r. destruct (find_dup_some s lvl _ id Ed) as [nd [E0 [El Ec]]].
  exists id, nd. auto.
Qed.

Lemma zlookup_node : forall s id nd hi lo, WF s -> find_node s id = Some nd ->
  nchildren nd = [E hi; E lo] -> zlookup s (nlevel nd) hi lo = Some (RN id).
Proof.
  intros s id nd hi lo H En Ec. unfold zlookup.
  destruct (find_dup s (nlevel nd) [E hi; E lo]) as [id'|] eqn:Ed.
  - destruct (find_dup_some s _ _ id' Ed) as [nd' [E' [El' Ec']]].
    f_equal. f_equal. apply (wf_unique s H id' id nd' nd E' En El'). congruence.
  - exfalso. apply (find_dup_none s _ _ Ed id nd En eq_refl Ec).
Qed.

(** the children of a stored ZBDD node, as untagged edges *)
Lemma zchildren_E : forall s id nd, ZbddOK s -> find_node s id = Some nd ->
  exists hi lo, nchildren nd = [E hi; E lo].
Proof.
  intros s id nd B En. pose proof (zo_wf s B) as H. pose proof (zo_kind s B) as Hk.
  destruct (zchildren s H Hk id nd En) as [hi [lo Ec]].
  assert (Hnb : s_kind s <> KBcdd) by (rewrite Hk; discriminate).
  exists (eref hi), (eref lo). rewrite Ec. f_equal; [|f_equal].
  - apply edge_ext; [reflexivity|]. simpl. apply (wf_tags s H Hnb id nd hi En). rewrite Ec. left. reflexivity.
  - apply edge_ext; [reflexivity|]. simpl. apply (wf_tags s H Hnb id nd lo En). rewrite Ec. right. left. reflexivity.
Qed.

(** ** The tautology chain *)

Lemma ztaut_up_den : forall s, ZbddOK s -> forall k t, k <= nlevels s ->
  ztaut_up s k = Some t -> ZDen s t (pall (nlevels s) (nlevels s - k)).
Proof.
  intros s B. induction k as [|k IH]; intros t Hk Et.
  - simpl in Et. destruct (zbase_spec s B) as [tb [Eb Etb]]. rewrite Eb in Et. inversion Et; subst t.
    rewrite Nat.sub_0_r. apply (zden_ext s _ pbase); [apply (zden_base s tb B Etb) | apply pall_base].
  - simpl in Et. destruct (ztaut_up s k) as [e|] eqn:Ek; [|discriminate].
    destruct (zlookup_some s _ e e t Et) as (id & nd & -> & En & El & Ec).
    pose proof (IH e ltac:(lia) eq_refl) as De.
    replace (nlevels s - k) with (S (nlevels s - S k)) in De by lia.
    rewrite <- El in *.
    apply (zden_ext s _ (node_pred (nlevel nd) (pall (nlevels s) (S (nlevel nd))) (pall (nlevels s) (S (nlevel nd))))).
    + apply (zden_node s id nd (E e) (E e) _ _ B En Ec); exact De.
    + apply pall_step. lia.
Qed.

Theorem ztaut_den : forall s l t, ZbddOK s -> ztaut s l = Some t ->
  ZDen s t (pall (nlevels s) (Nat.min l (nlevels s))).
Proof.
  intros s l t B E. unfold ztaut in E.
  pose proof (ztaut_up_den s B (nlevels s - l) t ltac:(lia) E) as D.
  replace (nlevels s - (nlevels s - l)) with (Nat.min l (nlevels s)) in D by lia. exact D.
Qed.

(** the edge that denotes "all subsets of [n - k, n)" is the one the lookup finds *)
Lemma ztaut_up_of_den : forall s, ZbddOK s -> forall k t, k <= nlevels s ->
  ZDen s t (pall (nlevels s) (nlevels s - k)) -> ztaut_up s k = Some t.
Proof.
  intros s B. pose proof (zo_wf s B) as H. induction k as [|k IH]; intros t Hk D.
  - simpl. destruct (zbase_spec s B) as [tb [Eb Etb]]. rewrite Eb. f_equal.
    rewrite Nat.sub_0_r in D.
    apply (zden_canon s (RT tb) t pbase _ B (zden_base s tb B Etb) D). apply pall_base.
  - set (n := nlevels s) in *. set (L := n - S k) in *.
    assert (HL : L < n) by (unfold L; lia).
    assert (Hmem : pall n L [L]) by (split; [simpl; split; [lia | exact I] | constructor; [exact HL | constructor]]).
    (* the root is a node at level L *)
    destruct (zden_support s t _ [L] B D Hmem) as [I1 _]. simpl in I1.
    assert (Hge : L <= rlevel s t).
    { apply (zden_level s t _ L B D); [fold n; lia|]. intros S [Hi _]. exact Hi. }
    destruct t as [x|id]; [simpl in I1; fold n in I1; lia|].
    destruct (zden_ok _ _ _ D) as [nd En].
    rewrite (rlevel_node s id nd En) in I1, Hge.
    assert (El : nlevel nd = L) by lia.
    destruct (znode_facts s id nd _ B D En)
      as (_ & _ & _ & hi & lo & PA & PB & Ec & DA & DB & _ & _ & HP & SA & SB).
    rewrite El in *.
    destruct (node_pred_inj L PA PB _ _ SB (fun S HS => proj1 HS)
                (peq_trans _ _ _ (peq_sym _ _ HP) (peq_sym _ _ (pall_step n L HL)))) as [HA HB].
    pose proof (zden_ext s _ _ _ DA HA) as DA'. pose proof (zden_ext s _ _ _ DB HB) as DB'.
    assert (Ehl : eref hi = eref lo) by (apply (zden_canon s _ _ _ _ B DA' DB'); apply peq_refl).
    destruct (zchildren_E s id nd B En) as [h [l Ec']]. rewrite Ec in Ec'. inversion Ec'; subst hi lo.
    simpl in Ehl. subst l. simpl in DA'.
    assert (Ek : ztaut_up s k = Some h).
    { apply IH; [lia|]. replace (n - k) with (S L) by (unfold L; lia). exact DA'. }
    simpl. rewrite Ek. fold n. fold L. rewrite <- El. apply (zlookup_node s id nd h h H En Ec).
Qed.

Theorem ztaut_of_den : forall s l t, ZbddOK s -> l <= nlevels s ->
  ZDen s t (pall (nlevels s) l) -> ztaut s l = Some t.
Proof.
  intros s l t B Hl D. unfold ztaut. apply (ztaut_up_of_den s B); [lia|].
  replace (nlevels s - (nlevels s - l)) with l by lia. exact D.
Qed.

(** the chain survives every extension of the table *)
Theorem ztaut_extends : forall s s' l t, ZbddOK s -> ZbddOK s' -> extends s s' ->
  ztaut s l = Some t -> ztaut s' l = Some t.
Proof.
  intros s s' l t B B' X E. pose proof (ztaut_den s l t B E) as D.
  pose proof (zden_extends s s' t _ B X D) as D'.
  pose proof (ext_nlevels _ _ X) as Hn. rewrite <- Hn in D'.
  destruct (Nat.le_gt_cases l (nlevels s')) as [Hl|Hl].
  - rewrite Nat.min_l in D' by exact Hl. apply (ztaut_of_den s' l t B' Hl D').
  - rewrite Nat.min_r in D' by lia.
    pose proof (ztaut_of_den s' (nlevels s') t B' (le_n _) D') as E'.
    unfold ztaut in *. replace (nlevels s' - l) with 0 by lia.
    rewrite Nat.sub_diag in E'. exact E'.
Qed.

Lemma ztaut_up_down : forall s k, ztaut_up s (S k) <> None -> ztaut_up s k <> None.
Proof. intros s k Hs Hk. apply Hs. simpl. rewrite Hk. reflexivity. Qed.

Lemma ztaut_up_total : forall s k j, ztaut_up s k <> None -> j <= k -> ztaut_up s j <> None.
Proof.
  intros s k j Hk Hj. induction k as [|k IH].
  - replace j with 0 by lia. exact Hk.
  - destruct (Nat.eq_dec j (S k)) as [->|Hne]; [exact Hk|].
    apply IH; [apply ztaut_up_down; exact Hk | lia].
Qed.

(** the checkable hypothesis: the chain is complete *)
Definition ZChainOK (s : snap) : Prop := zchain_ok_b s = true.

Theorem ztaut_total : forall s l, ZChainOK s -> exists t, ztaut s l = Some t.
Proof.
  intros s l Hc. unfold ZChainOK, zchain_ok_b in Hc.
  assert (H0 : ztaut_up s (nlevels s) <> None).
  { unfold ztaut in Hc. rewrite Nat.sub_0_r in Hc. destruct (ztaut_up s (nlevels s)); [discriminate | discriminate]. }
  pose proof (ztaut_up_total s (nlevels s) (nlevels s - l) H0 ltac:(lia)) as Hl.
  unfold ztaut. destruct (ztaut_up s (nlevels s - l)) as [t|]; [eauto | congruence].
Qed.

Theorem zchain_extends : forall s s', ZbddOK s -> ZbddOK s' -> extends s s' -> ZChainOK s -> ZChainOK s'.
Proof.
  intros s s' B B' X Hc. destruct (ztaut_total s 0 Hc) as [t E].
  unfold ZChainOK, zchain_ok_b. rewrite (ztaut_extends s s' 0 t B B' X E). reflexivity.
Qed.

(** a table that has an edge for the constant-true function has the whole chain *)
Theorem zchain_of_den : forall s t, ZbddOK s -> ZDen s t (pall (nlevels s) 0) -> ZChainOK s.
Proof.
  intros s t B D. unfold ZChainOK, zchain_ok_b.
  rewrite (ztaut_of_den s 0 t B ltac:(lia) D). reflexivity.
Qed.

(** [post_reorder_mut] / [add_vars] establish the hypothesis, and the lookup
    returns the chain they built *)
Theorem zchain_after_taut_chain : forall s, ZbddOK s ->
  exists s' ch, ztaut_chain s = Some (s', ch) /\ ZbddOK s' /\ extends s s' /\ ZChainOK s' /\
    forall l, l <= nlevels s' -> ztaut s' l = nth_error ch l.
Proof.
  intros s B. destruct (ztaut_chain_ok s B) as (s' & ch & E & B' & X & Hlen & Hch).
  pose proof (ext_nlevels _ _ X) as Hn.
  assert (Hd : forall l t, nth_error ch l = Some t -> ZDen s' t (pall (nlevels s') l)).
  { intros l t Hl. destruct (Hch l t Hl) as [O [F [EF HF]]]. split; [exact O|]. exists F. split; [exact EF|].
    assert (Hll : l < length ch) by (apply nth_error_Some; congruence).
    intros S. rewrite (HF S), in_f_powerset. unfold pall.
    replace (l + (nlevels s - l)) with (nlevels s') by lia. reflexivity. }
  assert (Hl : forall l, l <= nlevels s' -> ztaut s' l = nth_error ch l).
  { intros l Hl. destruct (nth_error ch l) as [t|] eqn:Et.
    - apply (ztaut_of_den s' l t B' Hl). apply Hd. exact Et.
    - apply nth_error_None in Et. lia. }
  exists s', ch. split; [exact E|]. split; [exact B'|]. split; [exact X|]. split; [|exact Hl].
  unfold ZChainOK, zchain_ok_b. rewrite (Hl 0 ltac:(lia)).
  destruct (nth_error ch 0) eqn:E0; [reflexivity|]. apply nth_error_None in E0. lia.
Qed.

Theorem zchain_after_add_vars : forall s k, ZbddOK s ->
  exists s' ch, zadd_vars s k = Some (s', ch) /\ ZbddOK s' /\ ZChainOK s' /\
    nlevels s' = nlevels s + k /\ forall l, l <= nlevels s' -> ztaut s' l = nth_error ch l.
Proof.
  intros s k B. destruct (add_levels_ok s k B) as (B1 & _ & Hn1 & _).
  destruct (zchain_after_taut_chain (add_levels s k) B1) as (s' & ch & E & B' & X & Hc & Hl).
  exists s', ch. split; [exact E|]. split; [exact B'|]. split; [exact Hc|].
  split; [rewrite (ext_nlevels _ _ X); exact Hn1 | exact Hl].
Qed.

(** ** Reading a cube; the result family of [restrict] (definitions; proofs in DD/ZbddRestrictProofs.v) *)

(** [M] : level |-> literal.  [ZCube s M lvl vars]: from [lvl] on, [vars] is the
    cube [M] in the shape [restrict] walks: a skipped level is a negative
    literal, a node with equal children no literal, a node with lo = Empty a
    positive literal. *)
Inductive ZCube (s : snap) (M : nat -> option bool) : nat -> ref -> Prop :=
| ZC_term : forall lvl t, term_val s t = Some 1%N ->
    (forall l, lvl <= l < nlevels s -> M l = Some false) -> ZCube s M lvl (RT t)
| ZC_dc : forall lvl id nd hi, find_node s id = Some nd -> nchildren nd = [E hi; E hi] ->
    lvl <= nlevel nd -> (forall l, lvl <= l < nlevel nd -> M l = Some false) ->
    M (nlevel nd) = None -> ZCube s M (S (nlevel nd)) hi -> ZCube s M lvl (RN id)
| ZC_pos : forall lvl id nd hi lo, find_node s id = Some nd -> nchildren nd = [E hi; E lo] ->
    hi <> lo -> is_empty_b s lo = true ->
    lvl <= nlevel nd -> (forall l, lvl <= l < nlevel nd -> M l = Some false) ->
    M (nlevel nd) = Some true -> ZCube s M (S (nlevel nd)) hi -> ZCube s M lvl (RN id).

(** the choice at level [l] when the literals of [M] override membership in [S] *)
Definition cm (M : nat -> option bool) (S : lset) (l : nat) : nat :=
  match M l with
  | Some true => 0
  | Some false => 1
  | None => if smem l S then 0 else 1
  end.

(** the set [S] with the literal levels overridden, among the levels [from, from + cnt) *)
Definition ovl (M : nat -> option bool) (S : lset) (from cnt : nat) : lset := true_levels (cm M S) from cnt.

(** the restriction of the family [P], seen from level [lvl], over [n] levels *)
Definition prestr (n : nat) (M : nat -> option bool) (lvl : nat) (P : fpred) : fpred :=
  fun S => incr_from lvl S /\ Forall (fun x => x < n) S /\ P (ovl M S lvl (n - lvl)).

(** ** Symmetric difference and if-then-else on families *)

Definition pxor (P Q : fpred) : fpred := fun S => (P S /\ ~ Q S) \/ (~ P S /\ Q S).
Definition pite (P Q R : fpred) : fpred := fun S => (P S /\ Q S) \/ (~ P S /\ R S).

(** ** The cache invariant for all operator codes *)

Section ZBoolCache.
Variable gt : ref -> ref -> bool.
Variable C : Type.
Variable cget : C -> N -> list ref -> list nat -> option ref.
Variable cadd : C -> N -> list ref -> list nat -> ref -> C.
Hypothesis Hlossy : zlossy C cget cadd.

(** entries of the codes of this package: SymmDiff (7), Ite (8), Restrict (3) *)
Definition zentry_x (s : snap) (code : N) (args : list ref) (nums : list nat) (r : ref) : Prop :=
  match args, nums with
  | [f; g], [] =>
    code = zcode_symm -> exists P Q, ZDen s f P /\ ZDen s g Q /\ ZDen s r (pxor P Q)
  | [f; g], [n] =>
    (* Restrict entries are keyed by the number of levels (/repo f8637cd); an entry keyed
       with another number of levels than the table's says nothing (add_vars keeps the
       apply cache: entries of smaller numbers of levels linger, they are not looked up) *)
    code = zcode_restrict -> n = nlevels s ->
       exists P id nd M, ZDen s f P /\ f = RN id /\ find_node s id = Some nd /\
         ZCube s M (nlevel nd) g /\ ZDen s r (prestr (nlevels s) M (nlevel nd) P)
  | [f; g; h], [] =>
    code = zcode_ite ->
      exists P Q R, ZDen s f P /\ ZDen s g Q /\ ZDen s h R /\ ZDen s r (pite P Q R)
  | _, _ => True
  end.

Definition ZCacheOKB (s : snap) (c : C) : Prop :=
  forall code args nums r, cget c code args nums = Some r ->
    zentry_ok s code args nums r /\ zentry_x s code args nums r.

Lemma zcacheokb_ok : forall s c, ZCacheOKB s c -> ZCacheOK C cget s c.
Proof. intros s c O code args nums r E. apply (O _ _ _ _ E). Qed.

Lemma zcube_extends : forall s s' M lvl vars, extends s s' -> ZCube s M lvl vars -> ZCube s' M lvl vars.
Proof.
  intros s s' M lvl vars X Hc.
  induction Hc as [lvl t Et Hneg | lvl id nd hi En Ec Hle Hneg Hm Hc' IH | lvl id nd hi lo En Ec Hne He Hle Hneg Hm Hc' IH].
  - apply ZC_term; [rewrite (ext_term_val _ _ t X); exact Et | rewrite (ext_nlevels _ _ X); exact Hneg].
  - apply (ZC_dc s' M lvl id nd hi (ext_nodes _ _ X id nd En) Ec Hle Hneg Hm IH).
  - apply (ZC_pos s' M lvl id nd hi lo (ext_nodes _ _ X id nd En) Ec Hne); auto.
    destruct (is_empty_b_true s lo He) as [t [-> Et]].
    unfold is_empty_b, is_term_with. rewrite (ext_term_val _ _ t X), Et. reflexivity.
Qed.

Lemma zentry_x_extends : forall s s' code args nums r, ZbddOK s -> extends s s' ->
  zentry_x s code args nums r -> zentry_x s' code args nums r.
Proof.
  intros s s' code args nums r B X. unfold zentry_x.
  destruct args as [|f [|g [|h [|x rest]]]]; auto; destruct nums as [|v [|w rest']]; auto.
  - intros H7 Hc. destruct (H7 Hc) as (P & Q & DF & DG & DR). exists P, Q.
    repeat split; eapply zden_extends; eauto.
  - intros H3 Hc Hv. rewrite (ext_nlevels _ _ X) in Hv.
    destruct (H3 Hc Hv) as (P & id & nd & M & DF & -> & En & Hcu & DR).
    exists P, id, nd, M. split; [eapply zden_extends; eauto|]. split; [reflexivity|].
    split; [apply (ext_nodes _ _ X); exact En|]. split; [apply (zcube_extends s s' _ _ _ X Hcu)|].
    rewrite (ext_nlevels _ _ X). eapply zden_extends; eauto.
  - intros H8 Hc. destruct (H8 Hc) as (P & Q & R & DF & DG & DH & DR). exists P, Q, R.
    repeat split; eapply zden_extends; eauto.
Qed.

Lemma zcacheokb_extends : forall s s' c, ZbddOK s -> extends s s' -> ZCacheOKB s c -> ZCacheOKB s' c.
Proof.
  intros s s' c B X O code args nums r E. destruct (O _ _ _ _ E) as [A A']. split.
  - eapply zentry_ok_extends; eauto.
  - eapply zentry_x_extends; eauto.
Qed.

Lemma zcacheokb_add : forall s c code args nums r, ZCacheOKB s c ->
  zentry_ok s code args nums r -> zentry_x s code args nums r ->
  ZCacheOKB s (cadd c code args nums r).
Proof.
  intros s c code args nums r O H1 H2 code' args' nums' r' E.
  destruct (Hlossy _ _ _ _ _ _ _ _ _ E) as [[-> [-> [-> ->]]]|E']; [split; assumption | apply (O _ _ _ _ E')].
Qed.

(** entries of this package's codes say nothing in the C09 invariant, and vice versa *)
Lemma zentry_ok_other : forall s code args nums r,
  (forall o, code <> zop_code o) -> (forall o, code <> zsub_code o) -> zentry_ok s code args nums r.
Proof.
  intros s code args nums r H1 H2. unfold zentry_ok.
  destruct args as [|f [|g [|h rest]]]; auto; destruct nums as [|v [|w rest']]; auto.
  - intros o Ho. destruct (H2 o Ho).
  - intros o Ho. destruct (H1 o Ho).
Qed.

Lemma zentry_x_other : forall s code args nums r,
  code <> zcode_symm -> code <> zcode_restrict -> code <> zcode_ite -> zentry_x s code args nums r.
Proof.
  intros s code args nums r H7 H3 H8. unfold zentry_x.
  destruct args as [|f [|g [|h [|x rest]]]]; auto; destruct nums as [|v [|w rest']]; auto.
  - intros Hc. contradiction.
  - intros Hc. contradiction.
  - intros Hc. contradiction.
Qed.

Definition zresult_okB (s : snap) (res : option (snap * C * ref)) (R : fpred) : Prop :=
  exists s' c' r, res = Some (s', c', r) /\
    ZbddOK s' /\ extends s s' /\ ZCacheOKB s' c' /\ ZDen s' r R.

Lemma zresultB_ext : forall s res R R', peq R R' -> zresult_okB s res R -> zresult_okB s res R'.
Proof.
  intros s res R R' Hp (s' & c' & r & E & B & X & O & D).
  exists s', c', r. repeat (split; [assumption|]). apply (zden_ext s' r R R' D Hp).
Qed.

Lemma zresultB_here : forall s c r R, ZbddOK s -> ZCacheOKB s c -> ZDen s r R ->
  zresult_okB s (Some (s, c, r)) R.
Proof.
  intros s c r R B O D. exists s, c, r. split; [reflexivity|]. split; [exact B|].
  split; [apply extends_refl|]. split; [exact O | exact D].
Qed.

Definition served_by (c c' : C) (K : N -> Prop) : Prop :=
  forall k a m x, cget c' k a m = Some x -> cget c k a m = Some x \/ K k.

Lemma served_refl : forall c K, served_by c c K.
Proof. intros c K k a m x E. left. exact E. Qed.

Lemma served_trans : forall c1 c2 c3 K, served_by c1 c2 K -> served_by c2 c3 K -> served_by c1 c3 K.
Proof.
  intros c1 c2 c3 K A B k a m x E. destruct (B _ _ _ _ E) as [E'|Hk]; [apply (A _ _ _ _ E') | right; exact Hk].
Qed.

Lemma served_add : forall c k a m r (K : N -> Prop), K k -> served_by c (cadd c k a m r) K.
Proof.
  intros c k a m r K Hk k' a' m' x E.
  destruct (Hlossy _ _ _ _ _ _ _ _ _ E) as [[-> _]|E']; [right; exact Hk | left; exact E'].
Qed.

(** the family of the result of a connective: the connective pointwise on membership *)
Definition pop (n : nat) (op : bop) (P Q : fpred) : fpred :=
  match op with
  | OAnd => pbin ZIntsec P Q
  | OOr => pbin ZUnion P Q
  | ONand => pbin ZDiff (pall n 0) (pbin ZIntsec P Q)
  | ONor => pbin ZDiff (pall n 0) (pbin ZUnion P Q)
  | OXor => pxor P Q
  | OEquiv => pbin ZDiff (pall n 0) (pxor P Q)
  | OImp => pite P Q (pall n 0)
  | OImpStrict => pbin ZDiff Q P
  end.

End ZBoolCache.

Lemma pxor_ext : forall P P' Q Q', peq P P' -> peq Q Q' -> peq (pxor P Q) (pxor P' Q').
Proof. intros P P' Q Q' HP HQ S. unfold pxor. rewrite (HP S), (HQ S). reflexivity. Qed.

Lemma pxor_comm : forall P Q, peq (pxor P Q) (pxor Q P).
Proof. intros P Q S. unfold pxor. tauto. Qed.

Lemma pxor_sup : forall L P Q, sup L P -> sup L Q -> sup L (pxor P Q).
Proof. intros L P Q HP HQ S [[A _]|[_ A]]; auto. Qed.

Lemma pxor_same : forall P, peq (pxor P P) pempty.
Proof. intros P S. unfold pxor, pempty. tauto. Qed.

Lemma pxor_empty_l : forall Q, peq (pxor pempty Q) Q.
Proof. intros Q S. unfold pxor, pempty. tauto. Qed.

Lemma pxor_empty_r : forall P, peq (pxor P pempty) P.
Proof. intros P S. unfold pxor, pempty. tauto. Qed.

Lemma pxor_node_node : forall L PA PB QA QB, sup L PB -> sup L QB ->
  peq (node_pred L (pxor PA QA) (pxor PB QB)) (pxor (node_pred L PA PB) (node_pred L QA QB)).
Proof.
  intros L PA PB QA QB SP SQ S. unfold node_pred, pxor.
  assert (N1 : forall T, ~ PB (L :: T)) by (intros T Hx; apply (sup_nohead L PB T SP Hx)).
  assert (N2 : forall T, ~ QB (L :: T)) by (intros T Hx; apply (sup_nohead L QB T SQ Hx)).
  clear SP SQ. split.
  - intros [[T [-> [[Ha Hn]|[Hn Ha]]]]|[[Hb Hn]|[Hn Hb]]].
    + left. split; [left; eauto|]. intros [[T' [E' Hq]]|Hq]; [inversion E'; subst; auto | apply (N2 T Hq)].
    + right. split; [|left; eauto]. intros [[T' [E' Hq]]|Hq]; [inversion E'; subst; auto | apply (N1 T Hq)].
    + left. split; [right; exact Hb|]. intros [[T' [-> Hq]]|Hq]; [apply (N1 T' Hb) | auto].
    + right. split; [|right; exact Hb]. intros [[T' [-> Hq]]|Hq]; [apply (N2 T' Hb) | auto].
  - intros [[[[T [-> Ha]]|Hb] Hn]|[Hn [[T [-> Ha]]|Hb]]].
    + left. exists T. split; [reflexivity|]. left. split; [exact Ha|]. intros Hq. apply Hn. left. eauto.
    + right. left. split; [exact Hb|]. intros Hq. apply Hn. right. exact Hq.
    + left. exists T. split; [reflexivity|]. right. split; [|exact Ha]. intros Hq. apply Hn. left. eauto.
    + right. right. split; [|exact Hb]. intros Hq. apply Hn. right. exact Hq.
Qed.

Lemma pxor_node_below : forall L PA PB Q, sup L PB -> sup L Q ->
  peq (pxor (node_pred L PA PB) Q) (node_pred L PA (pxor PB Q)).
Proof.
  intros L PA PB Q SP SQ S. unfold node_pred, pxor.
  assert (N1 : forall T, ~ PB (L :: T)) by (intros T Hx; apply (sup_nohead L PB T SP Hx)).
  assert (N2 : forall T, ~ Q (L :: T)) by (intros T Hx; apply (sup_nohead L Q T SQ Hx)).
  clear SP SQ. split.
  - intros [[[[T [-> Ha]]|Hb] Hn]|[Hn Hq]].
    + left. eauto.
    + right. left. auto.
    + right. right. split; [|exact Hq]. intros Hb. apply Hn. right. exact Hb.
  - intros [[T [-> Ha]]|[[Hb Hn]|[Hn Hq]]].
    + left. split; [left; eauto | apply N2].
    + left. split; [right; exact Hb | exact Hn].
    + right. split; [|exact Hq]. intros [[T [-> Ha]]|Hb]; [apply (N2 T Hq) | auto].
Qed.

Lemma pxor_below_node : forall L P QA QB, sup L P -> sup L QB ->
  peq (pxor P (node_pred L QA QB)) (node_pred L QA (pxor P QB)).
Proof.
  intros L P QA QB SP SQ S.
  rewrite (pxor_comm P (node_pred L QA QB) S), (pxor_node_below L QA QB P SQ SP S).
  apply node_pred_ext; [apply peq_refl | apply pxor_comm].
Qed.

Definition olev (n : nat) (o : option nat) : nat := match o with Some l => l | None => n end.
Definition lvl_ok (n : nat) (o : option nat) : Prop := forall x, o = Some x -> x < n.

Lemma vlevel_rlevel : forall s r v, WF s -> zget s r = Some v ->
  olev (nlevels s) (vlevel v) = rlevel s r /\ lvl_ok (nlevels s) (vlevel v).
Proof.
  intros s [t|id] v H Ev; simpl in Ev.
  - destruct (term_val s t); [|discriminate]. inversion Ev; subst v. simpl. split; [reflexivity|].
    intros x Hx. discriminate.
  - destruct (find_node s id) as [nd|] eqn:En; [|discriminate]. inversion Ev; subst v. simpl.
    rewrite En, (wf_stored s H id nd En). split; [reflexivity|].
    intros x Hx. inversion Hx; subst x. apply (wf_level s H id nd En).
Qed.

Lemma lcmp_olev : forall n a b, lvl_ok n a -> lvl_ok n b ->
  lcmp a b = Nat.compare (olev n a) (olev n b).
Proof.
  intros n [x|] [y|] Ha Hb; simpl.
  - reflexivity.
  - specialize (Ha x eq_refl). symmetry. apply Nat.compare_lt_iff. exact Ha.
  - specialize (Hb y eq_refl). symmetry. apply Nat.compare_gt_iff. exact Hb.
  - symmetry. apply Nat.compare_refl.
Qed.

Lemma lmin_olev : forall n a b, lvl_ok n a -> lvl_ok n b ->
  olev n (lmin a b) = Nat.min (olev n a) (olev n b) /\ lvl_ok n (lmin a b).
Proof.
  intros n a b Ha Hb. unfold lmin. rewrite (lcmp_olev n a b Ha Hb).
  destruct (Nat.compare_spec (olev n a) (olev n b)); (split; [lia | assumption]).
Qed.

Lemma olev_some : forall n o, olev n o < n -> o = Some (olev n o).
Proof. intros n [x|] Hl; simpl in *; [reflexivity | lia]. Qed.

Lemma ztaut_opt_olev : forall s o, ztaut_opt s o = ztaut s (olev (nlevels s) o).
Proof. intros s [x|]; reflexivity. Qed.

Lemma rlevel_lt_node : forall s r, ref_ok s r -> rlevel s r < nlevels s ->
  exists id nd, r = RN id /\ find_node s id = Some nd.
Proof.
  intros s [t|id] O Hl; [simpl in Hl; lia|]. destruct O as [nd En]. eauto.
Qed.

Lemma pite_ext : forall P P' Q Q' R R', peq P P' -> peq Q Q' -> peq R R' ->
  peq (pite P Q R) (pite P' Q' R').
Proof. intros P P' Q Q' R R' HP HQ HR S. unfold pite. rewrite (HP S), (HQ S), (HR S). reflexivity. Qed.

Lemma pite_sup : forall L P Q R, sup L Q -> sup L R -> sup L (pite P Q R).
Proof. intros L P Q R HQ HR S [[_ A]|[_ A]]; auto. Qed.

Definition pdec (P : fpred) : Prop := forall S, P S \/ ~ P S.

Lemma pite_same : forall P Q, pdec P -> peq (pite P Q Q) Q.
Proof. intros P Q Hd S. unfold pite. destruct (Hd S); tauto. Qed.

Lemma pite_f_eq_g : forall P R, pdec P -> peq (pite P P R) (pbin ZUnion P R).
Proof. intros P R Hd S. unfold pite. simpl. destruct (Hd S); tauto. Qed.

Lemma pite_f_eq_h : forall P Q, peq (pite P Q P) (pbin ZIntsec P Q).
Proof. intros P Q S. unfold pite. simpl. tauto. Qed.

Lemma pite_f_empty : forall Q R, peq (pite pempty Q R) R.
Proof. intros Q R S. unfold pite, pempty. tauto. Qed.

Lemma pite_g_empty : forall P R, peq (pite P pempty R) (pbin ZDiff R P).
Proof. intros P R S. unfold pite, pempty. simpl. tauto. Qed.

Lemma pite_h_empty : forall P Q, peq (pite P Q pempty) (pbin ZIntsec P Q).
Proof. intros P Q S. unfold pite, pempty. simpl. tauto. Qed.

Lemma pite_f_taut : forall (A Q R : fpred), (forall S, Q S -> A S) -> (forall S, R S -> A S) ->
  peq (pite A Q R) Q.
Proof. intros A Q R HQ HR S. unfold pite. split; [intros [[_ B]|[N B]]; [exact B | destruct (N (HR S B))] | intros B; left; auto]. Qed.

Lemma pite_g_taut : forall (A P R : fpred), pdec P -> (forall S, P S -> A S) ->
  peq (pite P A R) (pbin ZUnion P R).
Proof.
  intros A P R Hd HP S. unfold pite. simpl. split.
  - intros [[B _]|[_ B]]; auto.
  - intros [B|B]; [left; auto|]. destruct (Hd S) as [B'|B']; [left; auto | right; auto].
Qed.

Lemma pite_g_top : forall L P QA QB R, sup L P -> sup L R ->
  peq (pite P (node_pred L QA QB) R) (pite P QB R).
Proof.
  intros L P QA QB R SP SR S. unfold pite, node_pred. split.
  - intros [[HP [[T [-> _]]|HQ]]|HR]; [destruct (sup_nohead L P T SP HP) | left; auto | right; exact HR].
  - intros [[HP HQ]|HR]; [left; auto | right; exact HR].
Qed.

(** h on top, g either at the same level ([Q = node QA QB], [Q' = QB]) or below ([Q' = Q]) *)
Lemma pite_h_top : forall L P Q Q' RA RB, sup L P -> sup L Q' ->
  (forall S, incr_from (Datatypes.S L) S -> (Q S <-> Q' S)) ->
  peq (pite P Q (node_pred L RA RB)) (node_pred L RA (pite P Q' RB)).
Proof.
  intros L P Q Q' RA RB SP SQ HQ S. unfold pite, node_pred. split.
  - intros [[HP HQS]|[HN [[T [-> HT]]|HR]]].
    + right. left. split; [exact HP|]. apply (HQ S (SP S HP)). exact HQS.
    + left. eauto.
    + right. right. auto.
  - intros [[T [-> HT]]|[[HP HQS]|[HN HR]]].
    + right. split; [intros HP; apply (sup_nohead L P T SP HP) | left; eauto].
    + left. split; [exact HP|]. apply (HQ S (SP S HP)). exact HQS.
    + right. auto.
Qed.

Lemma pite_f_top : forall L PA PB Q R, sup L Q -> sup L R ->
  peq (pite (node_pred L PA PB) Q R) (pite PB Q R).
Proof.
  intros L PA PB Q R SQ SR S. unfold pite, node_pred. split.
  - intros [[[[T [-> _]]|HP] HQ]|[HN HR]].
    + destruct (sup_nohead L Q T SQ HQ).
    + left. auto.
    + right. split; [intros HP; apply HN; right; exact HP | exact HR].
  - intros [[HP HQ]|[HN HR]]; [left; auto|].
    right. split; [|exact HR]. intros [[T [-> _]]|HP]; [apply (sup_nohead L R T SR HR) | auto].
Qed.

Lemma pite_fg_top : forall L PA PB QA QB R, sup L PB -> sup L QB -> sup L R ->
  peq (pite (node_pred L PA PB) (node_pred L QA QB) R)
      (node_pred L (pbin ZIntsec PA QA) (pite PB QB R)).
Proof.
  intros L PA PB QA QB R SP SQ SR S. unfold pite, node_pred. simpl. split.
  - intros [[[[T [-> HA]]|HP] [[T' [E' HA']]|HQ]]|[HN HR]].
    + inversion E'; subst T'. left. eauto.
    + destruct (sup_nohead L QB T SQ HQ).
    + subst S. destruct (sup_nohead L PB T' SP HP).
    + right. left. auto.
    + right. right. split; [intros HP; apply HN; right; exact HP | exact HR].
  - intros [[T [-> [HA HA']]]|[[HP HQ]|[HN HR]]].
    + left. split; left; eauto.
    + left. split; right; assumption.
    + right. split; [|exact HR]. intros [[T [-> _]]|HP]; [apply (sup_nohead L R T SR HR) | auto].
Qed.

Lemma pite_fh_top : forall L PA PB Q RA RB, sup L PB -> sup L Q -> sup L RB ->
  peq (pite (node_pred L PA PB) Q (node_pred L RA RB))
      (node_pred L (pbin ZDiff RA PA) (pite PB Q RB)).
Proof.
  intros L PA PB Q RA RB SP SQ SR S. unfold pite, node_pred. simpl. split.
  - intros [[[[T [-> HA]]|HP] HQ]|[HN [[T [-> HT]]|HR]]].
    + destruct (sup_nohead L Q T SQ HQ).
    + right. left. auto.
    + left. exists T. split; [reflexivity|]. split; [exact HT|]. intros HA. apply HN. left. eauto.
    + right. right. split; [intros HP; apply HN; right; exact HP | exact HR].
  - intros [[T [-> [HT HN]]]|[[HP HQ]|[HN HR]]].
    + right. split; [|left; eauto]. intros [[T' [E' HA]]|HP]; [inversion E'; subst; auto | apply (sup_nohead L PB T SP HP)].
    + left. split; [right; exact HP | exact HQ].
    + right. split; [|right; exact HR]. intros [[T [-> _]]|HP]; [apply (sup_nohead L RB T SR HR) | auto].
Qed.

Lemma pite_all_top : forall L PA PB QA QB RA RB, sup L PB -> sup L QB -> sup L RB ->
  peq (pite (node_pred L PA PB) (node_pred L QA QB) (node_pred L RA RB))
      (node_pred L (pite PA QA RA) (pite PB QB RB)).
Proof.
  intros L PA PB QA QB RA RB SP SQ SR S. unfold pite, node_pred. split.
  - intros [[[[T [-> HA]]|HP] [[T' [E' HA']]|HQ]]|[HN [[T [-> HT]]|HR]]].
    + inversion E'; subst T'. left. exists T. split; [reflexivity|]. left. auto.
    + destruct (sup_nohead L QB T SQ HQ).
    + subst S. destruct (sup_nohead L PB T' SP HP).
    + right. left. auto.
    + left. exists T. split; [reflexivity|]. right. split; [|exact HT]. intros HA. apply HN. left. eauto.
    + right. right. split; [intros HP; apply HN; right; exact HP | exact HR].
  - intros [[T [-> [[HA HA']|[HN HT]]]]|[[HP HQ]|[HN HR]]].
    + left. split; left; eauto.
    + right. split; [|left; eauto]. intros [[T' [E' HA]]|HP]; [inversion E'; subst; auto | apply (sup_nohead L PB T SP HP)].
    + left. split; right; assumption.
    + right. split; [|right; exact HR]. intros [[T [-> _]]|HP]; [apply (sup_nohead L RB T SR HR) | auto].
Qed.

Section ZSteps.
Variable gt : ref -> ref -> bool.
Variable C : Type.
Variable cget : C -> N -> list ref -> list nat -> option ref.
Variable cadd : C -> N -> list ref -> list nat -> ref -> C.

Notation ZCacheOKB := (ZCacheOKB C cget).
Notation zresult_okB := (zresult_okB C cget).

Lemma zmk2B : forall s1 s2 c2 L hi lo RA RB,
  ZbddOK s1 -> ZbddOK s2 -> extends s1 s2 -> ZCacheOKB s2 c2 -> L < nlevels s2 ->
  ZDen s1 hi RA -> ZDen s2 lo RB -> sup L RA -> sup L RB ->
  exists s3 h, zmk_node s2 L hi lo = (s3, h) /\
    ZbddOK s3 /\ extends s2 s3 /\ ZCacheOKB s3 c2 /\ ZDen s3 h (node_pred L RA RB).
Proof.
  intros s1 s2 c2 L hi lo RA RB B1 B2 X2 O2 HL D1 D2 SA SB.
  destruct (zmk2 s1 s2 L hi lo RA RB B1 B2 X2 HL D1 D2 SA SB) as (s3 & h & Em & B3 & X3 & D3).
  exists s3, h. split; [exact Em|]. split; [exact B3|]. split; [exact X3|].
  split; [apply (zcacheokb_extends C cget s2 s3 c2 B2 X3 O2) | exact D3].
Qed.

Lemma zsymm_S : forall n s c f g,
  zsymm gt C cget cadd (S n) s c f g =
    match zempty s with
    | None => None
    | Some empty =>
      if ref_eqb f g then Some (s, c, empty)
      else if ref_eqb f empty then Some (s, c, g)
      else if ref_eqb g empty then Some (s, c, f)
      else
        let '(f, g) := if gt f g then (g, f) else (f, g) in
        match cget c zcode_symm [f; g] [] with
        | Some h => Some (s, c, h)
        | None =>
          match zget s f, zget s g with
          | Some fnode, Some gnode =>
            let res :=
              match lcmp (vlevel fnode) (vlevel gnode) with
              | Lt =>
                match zkids fnode, vlevel fnode with
                | Some (fhi, flo), Some flevel =>
                  match zsymm gt C cget cadd n s c flo g with
                  | None => None
                  | Some (s1, c1, lo) =>
                    let '(s2, h) := zmk_node s1 flevel fhi lo in Some (s2, c1, h)
                  end
                | _, _ => None
                end
              | Eq =>
                match zkids fnode, zkids gnode, vlevel fnode with
                | Some (fhi, flo), Some (ghi, glo), Some flevel =>
                  match zsymm gt C cget cadd n s c fhi ghi with
                  | None => None
                  | Some (s1, c1, hi) =>
                    match zsymm gt C cget cadd n s1 c1 flo glo with
                    | None => None
                    | Some (s2, c2, lo) =>
                      let '(s3, h) := zmk_node s2 flevel hi lo in Some (s3, c2, h)
                    end
                  end
                | _, _, _ => None
                end
              | Gt =>
                match zkids gnode, vlevel gnode with
                | Some (ghi, glo), Some glevel =>
                  match zsymm gt C cget cadd n s c f glo with
                  | None => None
                  | Some (s1, c1, lo) =>
                    let '(s2, h) := zmk_node s1 glevel ghi lo in Some (s2, c1, h)
                  end
                | _, _ => None
                end
              end in
            match res with
            | None => None
            | Some (s', c', h) => Some (s', cadd c' zcode_symm [f; g] [] h, h)
            end
          | _, _ => None
          end
        end
    end.
Proof. reflexivity. Qed.

Lemma zsymm_entry : forall s f g P Q R r,
  ZDen s f P -> ZDen s g Q -> ZDen s r R -> peq R (pxor P Q) ->
  zentry_ok s zcode_symm [f; g] [] r /\ zentry_x s zcode_symm [f; g] [] r.
Proof.
  intros s f g P Q R r DF DG DR Hp. split.
  - apply zentry_ok_other; intros o; destruct o; discriminate.
  - intros _. exists P, Q. split; [exact DF|]. split; [exact DG|].
    apply (zden_ext s r R _ DR Hp).
Qed.

Lemma zapply_ite_S : forall n s c f g h,
  zapply_ite gt C cget cadd (S n) s c f g h =
    if ref_eqb g h then Some (s, c, g)
    else if ref_eqb f g then zapply gt C cget cadd (S n) s c ZUnion f h
    else if ref_eqb f h then zapply gt C cget cadd (S n) s c ZIntsec f g
    else
      match zget s f with
      | None => None
      | Some fnode =>
        if is_empty_b s f then Some (s, c, h)
        else
          match zget s g with
          | None => None
          | Some gnode =>
            if is_empty_b s g then zapply gt C cget cadd (S n) s c ZDiff h f
            else
              match zget s h with
              | None => None
              | Some hnode =>
                if is_empty_b s h then zapply gt C cget cadd (S n) s c ZIntsec f g
                else
                  let flevel := vlevel fnode in
                  let glevel := vlevel gnode in
                  let hlevel := vlevel hnode in
                  let ghlevel := lmin glevel hlevel in
                  let level := lmin flevel ghlevel in
                  match ztaut_opt s level with
                  | None => None
                  | Some taut =>
                    if ref_eqb f taut then Some (s, c, g)
                    else if ref_eqb g taut then zapply gt C cget cadd (S n) s c ZUnion f h
                    else
                      match cget c zcode_ite [f; g; h] [] with
                      | Some r => Some (s, c, r)
                      | None =>
                        let res :=
                          match lcmp flevel ghlevel with
                          | Gt =>
                            match lcmp glevel hlevel with
                            | Lt =>
                              match zkids gnode with
                              | Some (_, glo) => zapply_ite gt C cget cadd n s c f glo h
                              | None => None
                              end
                            | cmp =>
                              match zkids hnode, level with
                              | Some (hhi, hlo), Some lv =>
                                let g' :=
                                  match cmp with
                                  | Eq => match zkids gnode with Some (_, glo) => Some glo | None => None end
                                  | _ => Some g
                                  end in
                                match g' with
                                | None => None
                                | Some g' =>
                                  match zapply_ite gt C cget cadd n s c f g' hlo with
                                  | None => None
                                  | Some (s1, c1, lo) =>
                                    let '(s2, r) := zmk_node s1 lv hhi lo in Some (s2, c1, r)
                                  end
                                end
                              | _, _ => None
                              end
                            end
                          | Lt =>
                            match zkids fnode with
                            | Some (_, flo) => zapply_ite gt C cget cadd n s c flo g h
                            | None => None
                            end
                          | Eq =>
                            match zkids fnode, level with
                            | Some (fhi, flo), Some lv =>
                              let hilo :=
                                match lcmp hlevel flevel with
                                | Gt =>
                                  match zkids gnode with
                                  | Some (ghi, glo) =>
                                    match zapply gt C cget cadd (S n) s c ZIntsec fhi ghi with
                                    | None => None
                                    | Some (s1, c1, hi) =>
                                      match zapply_ite gt C cget cadd n s1 c1 flo glo h with
                                      | None => None
                                      | Some (s2, c2, lo) => Some (s2, c2, hi, lo)
                                      end
                                    end
                                  | None => None
                                  end
                                | _ =>
                                  match lcmp glevel flevel with
                                  | Gt =>
                                    match zkids hnode with
                                    | Some (hhi, hlo) =>
                                      match zapply gt C cget cadd (S n) s c ZDiff hhi fhi with
                                      | None => None
                                      | Some (s1, c1, hi) =>
                                        match zapply_ite gt C cget cadd n s1 c1 flo g hlo with
                                        | None => None
                                        | Some (s2, c2, lo) => Some (s2, c2, hi, lo)
                                        end
                                      end
                                    | None => None
                                    end
                                  | _ =>
                                    match zkids gnode, zkids hnode with
                                    | Some (ghi, glo), Some (hhi, hlo) =>
                                      match zapply_ite gt C cget cadd n s c fhi ghi hhi with
                                      | None => None
                                      | Some (s1, c1, hi) =>
                                        match zapply_ite gt C cget cadd n s1 c1 flo glo hlo with
                                        | None => None
                                        | Some (s2, c2, lo) => Some (s2, c2, hi, lo)
                                        end
                                      end
                                    | _, _ => None
                                    end
                                  end
                                end in
                              match hilo with
                              | None => None
                              | Some (s2, c2, hi, lo) =>
                                let '(s3, r) := zmk_node s2 lv hi lo in Some (s3, c2, r)
                              end
                            | _, _ => None
                            end
                          end in
                        match res with
                        | None => None
                        | Some (s', c', r) => Some (s', cadd c' zcode_ite [f; g; h] [] r, r)
                        end
                      end
                  end
              end
          end
      end.
Proof. reflexivity. Qed.

Lemma zite_entry : forall s f g h P Q R r,
  ZDen s f P -> ZDen s g Q -> ZDen s h R -> ZDen s r (pite P Q R) ->
  zentry_ok s zcode_ite [f; g; h] [] r /\ zentry_x s zcode_ite [f; g; h] [] r.
Proof.
  intros s f g h P Q R r DF DG DH DR. split.
  - apply zentry_ok_other; intros o; destruct o; discriminate.
  - intros _. exists P, Q, R. auto.
Qed.

End ZSteps.

(** ** Constants and variables *)

Theorem zconst_ok : forall s b, ZbddOK s -> ZChainOK s ->
  exists r, zconst s b = Some r /\
    ZDen s r (if b then pall (nlevels s) 0 else pempty).
Proof.
  intros s b B Hc. destruct b; simpl.
  - destruct (ztaut_total s 0 Hc) as [t Et]. exists t. split; [exact Et|].
    pose proof (ztaut_den s 0 t B Et) as D. rewrite Nat.min_0_l in D. exact D.
  - destruct (zempty_spec s B) as [t [E Et]]. exists (RT t). split; [exact E | apply (zden_empty s t B Et)].
Qed.

(** the family of the function "variable at level [L] is true": all sets that contain [L] *)
Definition pvar (n L : nat) : fpred := fun S => pall n 0 S /\ In L S.


