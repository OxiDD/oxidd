(** * The Boolean interface of the ZBDD kind, part 7: a handle that denotes a cube has the cube shape

    The theorems of DD/ZbddRestrictProofs.v / ZbddRestrictTop.v assume that the cube handle has
    the shape [ZCube] the code walks.  Here: every reference that *denotes* the conjunction of
    literals has that shape (canonicity), so the hypothesis of the restrict theorem can be the
    semantic one of the property text - "vars is the conjunction of the literals [lits]":

    - [zcube_of_den]: [ZDen s vars (pcube n M lvl)] implies [ZCube s M lvl vars];
    - [zcube_lits_complete]: the executable reader accepts every reference of cube shape;
    - [is_zcube_den]: a reference whose Boolean function is the conjunction of the literals
      [lits] (variable, polarity) denotes [pcube n (lits_levels s lits) 0];
    - [zrestrict_edge_is_cube]: restrict w.r.t. such a handle is [Sem.restrict_s lits]. *)

From Coq Require Import List NArith PArith Bool Arith Lia FMapPositive.
From OxiVerif Require Import DD.Table DD.TableExtra DD.TableProofs DD.Sem DD.SemFacts DD.Build DD.BuildProofs
  DD.Apply DD.ApplyProofs DD.ApplyEvalProofs DD.CanonZbdd DD.FamSpec DD.FamSpecProofs DD.ZbddOps DD.ZbddOpsProofs
  DD.ZbddSubsetProofs DD.ZbddSoundProofs DD.ZbddVars DD.ZbddVarsProofs DD.ZbddBool DD.ZbddBoolProofs
  DD.ZbddXorProofs DD.ZbddIteProofs DD.ZbddEvalProofs DD.ZbddRestrictProofs DD.ZbddRestrictTop.
Import ListNotations.

(** ** Members of a cube family *)

(** the choice that is true exactly at the positive literals *)
Definition cpos (M : nat -> option bool) : nat -> nat :=
  fun l => match M l with Some true => 0 | _ => 1 end.

(** the smallest member: the set of positive literal levels *)
Lemma pcube_pos_member : forall n M lvl, pcube n M lvl (true_levels (cpos M) lvl (n - lvl)).
Proof.
  intros n M lvl. split; [apply true_levels_incr|]. split.
  - apply Forall_forall. intros x Hx. apply true_levels_range in Hx. lia.
  - intros l Hl. split.
    + intros Hm. apply true_levels_in; [lia|]. unfold cpos. rewrite Hm. reflexivity.
    + intros Hm Hin. apply true_levels_range in Hin. destruct Hin as [_ Hin]. unfold cpos in Hin.
      rewrite Hm in Hin. discriminate.
Qed.

(** a level without literal can be added to any member *)
Lemma pcube_insert_free : forall n M lvl l S, lvl <= l < n -> M l = None ->
  pcube n M lvl S -> pcube n M lvl (sinsert l S).
Proof.
  intros n M lvl l S Hl Hm [Hi [Hb Hlit]]. split; [apply incr_from_sinsert; [exact Hi | lia]|]. split.
  - apply Forall_forall. intros x Hx. apply in_sinsert in Hx. rewrite Forall_forall in Hb.
    destruct Hx as [->|Hx]; [lia | apply Hb; exact Hx].
  - intros l' Hl'. destruct (Hlit l' Hl') as [A1 A2]. split.
    + intros Hx. apply in_sinsert. right. apply A1. exact Hx.
    + intros Hx Hin. apply in_sinsert in Hin. destruct Hin as [->|Hin]; [congruence | apply (A2 Hx Hin)].
Qed.

(** ** Denoting a cube implies the cube shape *)

Theorem zcube_of_den : forall s, ZbddOK s -> forall k lvl vars M,
  nlevels s - lvl <= k -> lvl <= nlevels s ->
  ZDen s vars (pcube (nlevels s) M lvl) -> ZCube s M lvl vars.
Proof.
  intros s B. pose proof (zo_wf s B) as H.
  induction k as [|k IH]; intros lvl vars M Hk Hl D.
  - (* no levels left: the handle is Base *)
    assert (lvl = nlevels s) by lia. subst lvl.
    pose proof (pcube_pos_member (nlevels s) M (nlevels s)) as Hmem.
    destruct vars as [t|id].
    + destruct (zterm_cases s t B (zden_ok _ _ _ D)) as [Et|Et].
      * destruct (proj1 (zden_unique s _ _ _ D (zden_empty s t B Et) _) Hmem).
      * apply ZC_term; [exact Et|]. intros l Hl'. lia.
    + exfalso. destruct (zden_ok _ _ _ D) as [nd En].
      pose proof (zden_level s (RN id) _ (nlevels s) B D (le_n _) (fun S HS => proj1 HS)) as Hlev.
      rewrite (rlevel_node s id nd En) in Hlev. pose proof (wf_level s H id nd En). lia.
  - pose proof (pcube_pos_member (nlevels s) M lvl) as Hmem.
    destruct vars as [t|id].
    + (* Base: every remaining level carries a negative literal *)
      destruct (zterm_cases s t B (zden_ok _ _ _ D)) as [Et|Et].
      * destruct (proj1 (zden_unique s _ _ _ D (zden_empty s t B Et) _) Hmem).
      * pose proof (zden_unique s _ _ _ D (zden_base s t B Et)) as Hpb.
        assert (Hnil : true_levels (cpos M) lvl (nlevels s - lvl) = []) by (apply Hpb; exact Hmem).
        apply ZC_term; [exact Et|]. intros l Hl'.
        destruct (M l) as [[|]|] eqn:Hm; [| reflexivity |].
        -- exfalso. apply (true_levels_nil_inv _ _ _ l Hnil ltac:(lia)). unfold cpos. rewrite Hm. reflexivity.
        -- exfalso. pose proof (pcube_insert_free (nlevels s) M lvl l _ Hl' Hm Hmem) as Hins.
           rewrite Hnil in Hins. apply Hpb in Hins. simpl in Hins. discriminate.
    + destruct (zden_ok _ _ _ D) as [nd En].
      destruct (znode_facts s id nd _ B D En)
        as (_ & HL & Rr & hi0 & lo0 & PA & PB & Ec0 & DA & DB & _ & _ & HP & SA & SB).
      set (L := nlevel nd) in *.
      destruct (zchildren_E s id nd B En) as [hi [lo Ec]]. rewrite Ec in Ec0. inversion Ec0; subst hi0 lo0.
      simpl in DA, DB.
      assert (Hle : lvl <= L).
      { rewrite <- Rr. apply (zden_level s (RN id) _ lvl B D Hl). intros S HS. apply HS. }
      (* every member of the node starts at or below L *)
      assert (HinL : forall S, pcube (nlevels s) M lvl S -> incr_from L S).
      { intros S HS. apply HP in HS. destruct HS as [[T [-> HT]]|HB].
        - simpl. split; [lia | apply SA; exact HT].
        - apply (incr_from_weaken S (Datatypes.S L)); [lia | apply SB; exact HB]. }
      (* the levels above the node are negative literals *)
      assert (Hneg : forall l, lvl <= l < L -> M l = Some false).
      { intros l Hl'. destruct (M l) as [[|]|] eqn:Hm; [| reflexivity |]; exfalso.
        - assert (Hin : In l (true_levels (cpos M) lvl (nlevels s - lvl)))
            by (apply true_levels_in; [lia | unfold cpos; rewrite Hm; reflexivity]).
          pose proof (incr_from_ge _ L l (HinL _ Hmem) Hin). lia.
        - pose proof (pcube_insert_free (nlevels s) M lvl l _ ltac:(lia) Hm Hmem) as Hins.
          assert (Hin : In l (sinsert l (true_levels (cpos M) lvl (nlevels s - lvl)))) by (apply in_sinsert; left; reflexivity).
          pose proof (incr_from_ge _ L l (HinL _ Hins) Hin). lia. }
      (* the node has a member that starts with L *)
      destruct (fam_nonempty s B _ (RN id) (ex_intro _ nd En) (le_n _)) as [F [S0 [EF [HS0 Hhead]]]];
        [intros t Hx; discriminate|].
      destruct (Hhead id nd eq_refl En) as [T0 ET0]. fold L in ET0.
      assert (HPS0 : pcube (nlevels s) M lvl (L :: T0)).
      { destruct D as [_ [F' [EF' HF']]]. rewrite EF in EF'. inversion EF'; subst F'. apply HF'. rewrite <- ET0. exact HS0. }
      assert (HT0 : PA T0).
      { assert (Hn : node_pred L PA PB (L :: T0)) by (apply HP; exact HPS0).
        destruct Hn as [[T' [E' HT']]|HB']; [inversion E'; subst; exact HT' | destruct (sup_nohead L PB T0 SB HB')]. }
      pose proof (peq_trans _ _ _ (peq_sym _ _ HP) (pcube_node (nlevels s) M lvl L ltac:(lia) Hneg)) as HN.
      apply (node_pred_inj L PA PB _ _ SB) in HN;
        [|destruct (M L) as [[|]|]; intros S HS; [destruct HS | apply HS | apply HS]].
      destruct HN as [HA HB].
      destruct (M L) as [[|]|] eqn:Hm; [| destruct (proj1 (HA T0) HT0) |];
        pose proof (IH (S L) hi M ltac:(lia) ltac:(lia) (zden_ext s hi _ _ DA HA)) as Hc'.
      * (* positive literal: the lo child is Empty *)
        destruct (zempty_spec s B) as [te [_ Ete]].
        assert (Elo : lo = RT te) by (apply (zden_canon s lo (RT te) PB pempty B DB (zden_empty s te B Ete) HB)).
        subst lo.
        apply (ZC_pos s M lvl id nd hi (RT te) En Ec); auto.
        -- intros Heq. subst hi. destruct (proj1 (zden_unique s _ _ _ DA (zden_empty s te B Ete) T0) HT0).
        -- unfold is_empty_b, is_term_with. rewrite Ete. reflexivity.
      * (* no literal: both children denote the cube below L *)
        assert (Ehl : hi = lo) by (apply (zden_canon s hi lo PA PB B DA DB); intros S; rewrite (HA S), (HB S); reflexivity).
        subst lo. apply (ZC_dc s M lvl id nd hi En Ec Hle Hneg Hm Hc').
Qed.

(** ** The executable reader accepts every reference of cube shape *)

Theorem zcube_lits_complete : forall s, ZbddOK s -> forall M lvl vars, ZCube s M lvl vars ->
  forall fuel, lvl <= nlevels s -> nlevels s - lvl < fuel ->
  exists lits, zcube_lits fuel s vars lvl = Some lits.
Proof.
  intros s B. pose proof (zo_wf s B) as H. intros M lvl vars Hc.
  induction Hc as [lvl t Et Hneg | lvl id nd hi En Ec Hle Hneg Hm Hc' IH | lvl id nd hi lo En Ec Hne He Hle Hneg Hm Hc' IH];
    intros fuel Hl Hf; (destruct fuel as [|f]; [lia|]); simpl.
  - rewrite Et. simpl. eauto.
  - pose proof (wf_level s H id nd En) as HL. rewrite En.
    destruct (Nat.ltb_spec (nlevel nd) lvl) as [Hlt|_]; [lia|]. rewrite Ec. simpl eref.
    destruct (IH f ltac:(lia) ltac:(lia)) as [rest Er]. rewrite Er.
    rewrite (proj2 (ref_eqb_eq hi hi) eq_refl). eauto.
  - pose proof (wf_level s H id nd En) as HL. rewrite En.
    destruct (Nat.ltb_spec (nlevel nd) lvl) as [Hlt|_]; [lia|]. rewrite Ec. simpl eref.
    destruct (IH f ltac:(lia) ltac:(lia)) as [rest Er]. rewrite Er.
    destruct (ref_eqb hi lo) eqn:Ehl; [apply ref_eqb_eq in Ehl; contradiction|]. rewrite He. eauto.
Qed.

(** ** From the Boolean function of the handle to its family *)

(** the literal map on levels of a literal list on variables *)
Definition lits_levels (s : snap) (lits : list (nat * bool)) : nat -> option bool :=
  fun l => match nth_error (s_l2v s) l with Some v => assoc_nat lits v | None => None end.

(** the choice of a set of levels, and the set of true levels of that choice *)
Definition cset (S : lset) : nat -> nat := fun l => if smem l S then 0 else 1.

Lemma true_levels_cset : forall cnt from S, incr_from from S -> Forall (fun x => x < from + cnt) S ->
  true_levels (cset S) from cnt = S.
Proof.
  induction cnt as [|k IH]; intros from S Hi Hb.
  - destruct S as [|x T]; [reflexivity|]. simpl in Hi. destruct Hi as [Hx _]. inversion Hb; subst. lia.
  - simpl. destruct S as [|x T].
    + unfold cset at 1. simpl. apply (IH (Datatypes.S from) []); [exact I | constructor].
    + simpl in Hi. destruct Hi as [Hx HT]. inversion Hb as [|? ? Hxb HTb]; subst.
      destruct (Nat.eq_dec x from) as [->|Hne].
      * unfold cset at 1. rewrite smem_cons, Nat.eqb_refl. simpl. f_equal.
        rewrite (true_levels_ext (cset (from :: T)) (cset T)).
        -- apply IH; [exact HT|]. eapply Forall_impl; [|exact HTb]. simpl. intros; lia.
        -- intros l Hl. unfold cset. rewrite smem_cons. destruct (Nat.eqb_spec l from); [lia | reflexivity].
      * assert (Hn : ~ In from (x :: T)).
        { intros [Hy|Hy]; [lia|]. pose proof (incr_from_ge T (Datatypes.S x) from HT Hy). lia. }
        unfold cset at 1. apply smem_false in Hn. rewrite Hn. simpl.
        apply IH; [simpl; split; [lia | exact HT]|]. constructor; [lia|].
        eapply Forall_impl; [|exact HTb]. simpl. intros; lia.
Qed.

(** [vars] is the conjunction of the literals [lits] (variable, polarity) - the reading of C04 *)
Definition is_zcube (s : snap) (vars : ref) (lits : list (nat * bool)) : Prop :=
  forall a, zbfun_of s vars a = forallb (fun p : nat * bool => Bool.eqb (a (fst p)) (snd p)) lits.

Theorem is_zcube_den : forall s vars lits, ZbddOK s -> ref_ok s vars ->
  NoDup (map fst lits) -> (forall v b, In (v, b) lits -> v < nlevels s) ->
  is_zcube s vars lits -> ZDen s vars (pcube (nlevels s) (lits_levels s lits) 0).
Proof.
  intros s vars lits B O Hnd Hrange Hcube. pose proof (zo_wf s B) as H. pose proof (zo_kind s B) as Hk.
  set (n := nlevels s). set (M := lits_levels s lits).
  destruct (zden_exists s vars B O) as [P D]. apply (zden_ext s vars P _ D).
  assert (Hlen : length (s_v2l s) = n) by (apply (wf_perm_len s H)).
  (* for a set of levels: membership in P is "all literals hold" *)
  assert (Hset : forall S, incr_from 0 S -> Forall (fun x => x < n) S ->
            (P S <-> forall v b, In (v, b) lits ->
                       match nth_error (s_v2l s) v with Some l => smem l S = b | None => False end)).
  { intros S Hi Hb.
    set (a := fun v => match nth_error (s_v2l s) v with Some l => smem l S | None => false end).
    assert (Hc : choice_ok s (cset S)).
    { intros l. rewrite Hk. unfold cset. simpl. destruct (smem l S); lia. }
    destruct (zden_view s vars P (cset S) B D Hc) as [b [Eb Hbv]]. fold n in Hbv.
    rewrite (true_levels_cset n 0 S Hi Hb) in Hbv.
    assert (Ea : zbfun_of s vars a = b).
    { apply zbfun_of_view. rewrite <- Eb. unfold zview_of. apply (semz_ext_lt s H). intros l [_ Hl].
      unfold choice_of, cset, a. fold n in Hl.
      destruct (wf_perm_l2v s H l Hl) as [v [E1 E2]]. rewrite E1, E2. reflexivity. }
    rewrite <- Hbv, <- Ea, (Hcube a), forallb_forall. split.
    - intros Hall v b0 Hin. specialize (Hall _ Hin). simpl in Hall. apply Bool.eqb_prop in Hall.
      unfold a in Hall. destruct (nth_error (s_v2l s) v) as [l|] eqn:Ev; [exact Hall|].
      apply nth_error_None in Ev. specialize (Hrange v b0 Hin). fold n in Hrange. lia.
    - intros Hall [v b0] Hin. simpl. specialize (Hall v b0 Hin). unfold a.
      destruct (nth_error (s_v2l s) v) as [l|]; [rewrite Hall; apply Bool.eqb_reflx | destruct Hall]. }
  intros S. split.
  - intros HP. destruct (zden_support s vars P S B D HP) as [I1 I2]. fold n in I2.
    assert (Hi : incr_from 0 S) by (apply (incr_from_weaken S (rlevel s vars)); [lia | exact I1]).
    split; [exact Hi|]. split; [exact I2|]. intros l Hl.
    destruct (wf_perm_l2v s H l ltac:(unfold n, nlevels in Hl; lia)) as [v [E1 E2]].
    unfold M, lits_levels. rewrite E1.
    pose proof (proj1 (Hset S Hi I2) HP) as Hall. split.
    + intros Hm. apply assoc_nat_some_in in Hm. specialize (Hall _ _ Hm). rewrite E2 in Hall.
      apply smem_spec. exact Hall.
    + intros Hm. apply assoc_nat_some_in in Hm. specialize (Hall _ _ Hm). rewrite E2 in Hall.
      apply smem_false. exact Hall.
  - intros [Hi [Hb Hlit]]. apply (Hset S Hi Hb). intros v b0 Hin.
    pose proof (Hrange v b0 Hin) as Hv. fold n in Hv.
    destruct (wf_perm_v2l s H v ltac:(rewrite Hlen; exact Hv)) as [l [E1 E2]]. rewrite E1.
    assert (Hl : l < n) by (unfold n, nlevels; apply nth_error_Some; congruence).
    destruct (Hlit l ltac:(lia)) as [A1 A2]. unfold M, lits_levels in A1, A2. rewrite E2 in A1, A2.
    rewrite (assoc_nat_in lits v b0 Hnd Hin) in A1, A2. destruct b0.
    + apply smem_spec. apply A1. reflexivity.
    + apply smem_false. apply A2. reflexivity.
Qed.

(** overriding the literal variables in an assignment = overriding their levels in the choice *)
Lemma choice_of_fold_upd_v : forall s, WF s -> forall (lits : list (nat * bool)) a l,
  NoDup (map fst lits) ->
  choice_of s (fold_left (fun a0 (p : nat * bool) => Sem.upd a0 (fst p) (snd p)) lits a) l =
  covr (lits_levels s lits) (choice_of s a) l.
Proof.
  intros s H. induction lits as [|[v b] r IH]; intros a l Hnd.
  - simpl. unfold covr, lits_levels. destruct (nth_error (s_l2v s) l); reflexivity.
  - simpl in Hnd. inversion Hnd as [|? ? Hv Hr]; subst. simpl fold_left. rewrite (IH _ l Hr).
    unfold covr, lits_levels, choice_of. destruct (nth_error (s_l2v s) l) as [w|] eqn:El; [|reflexivity].
    simpl assoc_nat. unfold Sem.upd. destruct (Nat.eqb_spec v w) as [->|Hne].
    + rewrite (assoc_nat_notin _ r w Hv). rewrite Nat.eqb_refl. destruct b; reflexivity.
    + destruct (assoc_nat r w) as [[|]|]; try reflexivity.
      destruct (Nat.eqb_spec w v); [congruence | reflexivity].
Qed.

Section ZRestrictIsCube.
Variable C : Type.
Variable cget : C -> N -> list ref -> list nat -> option ref.
Variable cadd : C -> N -> list ref -> list nat -> ref -> C.
Hypothesis Hlossy : zlossy C cget cadd.

(** C04 for ZBDDs with the semantic hypothesis of the property text: [vars] is (any handle
    that denotes) the conjunction of the literals [lits]; then [restrict] is the cofactor w.r.t.
    that partial assignment, and the run-time check [zcube_lits] accepts the handle *)
Theorem zrestrict_edge_is_cube : forall s c f vars lits,
  ZbddOK s -> ZChainOK s -> ZCacheOKB C cget s c -> ref_ok s f -> ref_ok s vars ->
  NoDup (map fst lits) -> (forall v b, In (v, b) lits -> v < nlevels s) ->
  is_zcube s vars lits ->
  exists s' c' r, zrestrict_edge C cget cadd (S (nlevels s)) s c f vars = Some (s', c', r) /\
    zstate_ok C cget s s' c' r /\
    (forall a, zbfun_of s' r a = restrict_s lits (zbfun_of s f) a) /\
    exists lits', zcube_lits (S (nlevels s)) s vars 0 = Some lits'.
Proof.
  intros s c f vars lits B Hch O Of Ov Hnd Hrange Hcube.
  pose proof (zo_wf s B) as H. pose proof (zo_kind s B) as Hk.
  pose proof (is_zcube_den s vars lits B Ov Hnd Hrange Hcube) as D.
  pose proof (zcube_of_den s B _ 0 vars _ (le_n _) ltac:(lia) D) as Hc.
  destruct (zrestrict_edge_cube C cget cadd Hlossy _ s c f vars _ B Hch O Of Hc (le_n _))
    as (s' & c' & r & E & St & Hv).
  exists s', c', r. split; [exact E|]. split; [exact St|]. split.
  - intros a. destruct St as (B' & _ & X & _ & _).
    rewrite restrict_s_apply. unfold zbfun_of at 1 2.
    rewrite (choice_of_ext s s' a X), (Hv _ (choice_of_ok s a Hk)). unfold zview_of.
    apply (f_equal (fun o : option bool => match o with Some true => true | _ => false end)).
    symmetry. apply (semz_ext_lt s H). intros l _. apply (choice_of_fold_upd_v s H lits a l Hnd).
  - apply (zcube_lits_complete s B _ 0 vars Hc); lia.
Qed.

End ZRestrictIsCube.
