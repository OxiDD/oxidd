(** * The Boolean interface of the ZBDD kind, part 4: the Boolean view, eval, cofactors

    - [zbfun_of]: the Boolean function (DD/Sem.v [bfun]) a ZBDD reference denotes
      over all variables of the manager under the current order ([semz] from
      level 0 = C09_bool_view of its family);
    - [zden_view]: the view of an edge that denotes the family [P] is "the set of
      true levels is a member of [P]";
    - the operators in Boolean terms, per choice ([z*_sound]) and per
      assignment ([z*_bfun]): not, the eight connectives, ite, constants,
      (negated) variables; [z*_unique]: the result is the only edge with that
      view, whatever cache / operand order / history produced it;
    - [zeval_walk_sem], [zeval_edge_assignment]: the bit-set + [ones] walk of
      [eval_edge] computes the view, never underflows;
    - [zcofactors_sound]: the cofactors are the children = subset1 / subset0 of
      the top variable (family statement, and literally what the model of
      [subset] returns). *)

From Coq Require Import List NArith PArith Bool Arith Lia FMapPositive.
From OxiVerif Require Import DD.Table DD.TableExtra DD.TableProofs DD.Sem DD.Build DD.BuildProofs
  DD.Apply DD.ApplyProofs DD.ApplyEvalProofs DD.CanonZbdd DD.FamSpec DD.FamSpecProofs DD.ZbddOps DD.ZbddOpsProofs
  DD.ZbddSubsetProofs DD.ZbddSoundProofs DD.ZbddVars DD.ZbddVarsProofs DD.ZbddBool DD.ZbddBoolProofs
  DD.ZbddXorProofs DD.ZbddIteProofs.
Import ListNotations.

(** ** The Boolean view *)

Definition zview_of (s : snap) (r : ref) (c : nat -> nat) : option bool := semz s (S (nlevels s)) 0 r c.

Definition zbfun_of (s : snap) (r : ref) : bfun :=
  fun a => match zview_of s r (choice_of s a) with Some true => true | _ => false end.

Lemma bool_iff_eq : forall b1 b2 (X : Prop), (b1 = true <-> X) -> (b2 = true <-> X) -> b1 = b2.
Proof. intros [] [] X H1 H2; try reflexivity; [symmetry; apply H2, H1 | apply H1, H2]; reflexivity. Qed.

Lemma choice_of_ok : forall s a, s_kind s = KZbdd -> choice_ok s (choice_of s a).
Proof. intros s a Hk l. rewrite Hk. apply (choice_of_bchoice s a l). Qed.

(** the view of an edge denoting [P]: is the set of true levels a member? *)
Lemma zden_view : forall s r P c, ZbddOK s -> ZDen s r P -> choice_ok s c ->
  exists b, zview_of s r c = Some b /\ (b = true <-> P (true_levels c 0 (nlevels s))).
Proof.
  intros s r P c B [O [F [EF HF]]] Hc. unfold zview_of.
  rewrite (bool_view s (zo_wf s B) (zo_kind s B) r c F O Hc EF).
  exists (fam_bool (nlevels s) F c). split; [reflexivity|]. unfold fam_bool.
  rewrite fmem_spec. apply HF.
Qed.

Lemma zden_view_ext : forall s s' r P c, ZbddOK s' -> extends s s' -> ZDen s' r P -> choice_ok s c ->
  exists b, zview_of s' r c = Some b /\ (b = true <-> P (true_levels c 0 (nlevels s))).
Proof.
  intros s s' r P c B' X D Hc. rewrite <- (ext_nlevels _ _ X).
  apply (zden_view s' r P c B' D). apply (ext_choice_ok _ _ c X). exact Hc.
Qed.

Lemma zview_total : forall s r c, ZbddOK s -> ref_ok s r -> choice_ok s c ->
  exists b, zview_of s r c = Some b.
Proof.
  intros s r c B O Hc. destruct (zden_exists s r B O) as [P D].
  destruct (zden_view s r P c B D Hc) as [b [E _]]. eauto.
Qed.

(** an edge of the old table has the same view in every extension *)
Lemma zview_extends : forall s s' r c, ZbddOK s -> ZbddOK s' -> extends s s' -> ref_ok s r ->
  choice_ok s c -> zview_of s' r c = zview_of s r c.
Proof.
  intros s s' r c B B' X O Hc. destruct (zden_exists s r B O) as [P D].
  destruct (zden_view s r P c B D Hc) as [b [E Hb]].
  destruct (zden_view_ext s s' r P c B' X (zden_extends s s' r P B X D) Hc) as [b' [E' Hb']].
  rewrite E, E'. f_equal. apply (bool_iff_eq b' b _ Hb' Hb).
Qed.

(** canonicity in terms of views *)
Lemma zview_canon : forall s r1 r2, ZbddOK s -> ref_ok s r1 -> ref_ok s r2 ->
  (forall c, choice_ok s c -> zview_of s r1 c = zview_of s r2 c) -> r1 = r2.
Proof.
  intros s r1 r2 B O1 O2 Hv.
  apply (canon_zbdd s (zo_wf s B) (zo_kind s B) (zbddok_terms_kind s B) r1 r2 O1 O2). exact Hv.
Qed.

(** the true levels of a choice form a subset of all levels *)
Lemma true_levels_pall : forall n c, pall n 0 (true_levels c 0 n).
Proof. intros n c. pose proof (pall_true_levels n c 0) as Hp. rewrite Nat.sub_0_r in Hp. exact Hp. Qed.

Lemma pvar_view : forall n L c, L < n -> (Nat.eqb (c L) 0 = true <-> pvar n L (true_levels c 0 n)).
Proof.
  intros n L c HL. rewrite Nat.eqb_eq. unfold pvar. split.
  - intros E0. split; [apply true_levels_pall | apply true_levels_in; [lia | exact E0]].
  - intros [_ Hin]. apply true_levels_range in Hin. apply Hin.
Qed.

Lemma iff_true_if : forall (b : bool) (X : Prop), (b = true <-> X) -> if b then X else ~ X.
Proof. intros [] X H; [apply H; reflexivity | intros HX; apply H in HX; discriminate]. Qed.

(** membership of the true-level set, for the result family of each operator *)
Lemma pop_view : forall n op (P Q : fpred) T bf bg br,
  pall n 0 T -> (bf = true <-> P T) -> (bg = true <-> Q T) ->
  (br = true <-> pop n op P Q T) -> br = eval_bop op bf bg.
Proof.
  intros n op P Q T bf bg br HT Hf Hg Hr. apply iff_true_if in Hf, Hg, Hr.
  destruct op; unfold pop, pbin, pxor, pite in Hr;
    destruct bf, bg, br; simpl; try reflexivity; exfalso; tauto.
Qed.

Lemma pnot_view : forall n (P : fpred) T bf br,
  pall n 0 T -> (bf = true <-> P T) -> (br = true <-> pbin ZDiff (pall n 0) P T) -> br = negb bf.
Proof.
  intros n P T bf br HT Hf Hr. apply iff_true_if in Hf, Hr. simpl in Hr.
  destruct bf, br; simpl; try reflexivity; exfalso; tauto.
Qed.

Lemma pite_view : forall (P Q R : fpred) T bf bg bh br,
  (bf = true <-> P T) -> (bg = true <-> Q T) -> (bh = true <-> R T) ->
  (br = true <-> pite P Q R T) -> br = (if bf then bg else bh).
Proof.
  intros P Q R T bf bg bh br Hf Hg Hh Hr. apply iff_true_if in Hf, Hg, Hh, Hr. unfold pite in Hr.
  destruct bf, bg, bh, br; simpl; try reflexivity; exfalso; tauto.
Qed.

(** ** The operators in Boolean terms *)

Section ZBoolTop.
Variable gt : ref -> ref -> bool.
Variable C : Type.
Variable cget : C -> N -> list ref -> list nat -> option ref.
Variable cadd : C -> N -> list ref -> list nat -> ref -> C.
Hypothesis Hlossy : zlossy C cget cadd.

Notation ZCacheOKB := (ZCacheOKB C cget).

(** what every operation guarantees about the new state *)
Definition zstate_ok (s s' : snap) (c' : C) (r : ref) : Prop :=
  ZbddOK s' /\ ZChainOK s' /\ extends s s' /\ ZCacheOKB s' c' /\ ref_ok s' r.

Lemma zstate_of_result : forall s res R, ZbddOK s -> ZChainOK s ->
  zresult_okB C cget s res R ->
  exists s' c' r, res = Some (s', c', r) /\ zstate_ok s s' c' r /\ ZDen s' r R.
Proof.
  intros s res R B Hc (s' & c' & r & E & B' & X & O' & D).
  exists s', c', r. split; [exact E|]. split; [|exact D].
  split; [exact B'|]. split; [apply (zchain_extends s s' B B' X Hc)|]. split; [exact X|].
  split; [exact O' | apply (zden_ok _ _ _ D)].
Qed.

(** not *)
Theorem zapply_not_sound : forall fuel s c f,
  ZbddOK s -> ZChainOK s -> ZCacheOKB s c -> ref_ok s f -> S (nlevels s) <= fuel ->
  exists s' c' r, zapply_not gt C cget cadd fuel s c f = Some (s', c', r) /\ zstate_ok s s' c' r /\
    forall c0, choice_ok s c0 ->
      exists bf, zview_of s f c0 = Some bf /\ zview_of s' r c0 = Some (negb bf).
Proof.
  intros fuel s c f B Hc O Of Hf. destruct (zden_exists s f B Of) as [P DF].
  destruct (zstate_of_result s _ _ B Hc (zapply_not_ok gt C cget cadd Hlossy fuel s c f P B Hc O DF ltac:(lia)))
    as (s' & c' & r & E & St & D).
  exists s', c', r. split; [exact E|]. split; [exact St|].
  destruct St as (B' & _ & X & _ & _). intros c0 Hc0.
  destruct (zden_view s f P c0 B DF Hc0) as [bf [Ef Hbf]].
  destruct (zden_view_ext s s' r _ c0 B' X D Hc0) as [br [Er Hbr]].
  exists bf. split; [exact Ef|]. rewrite Er. f_equal.
  apply (pnot_view (nlevels s) P _ bf br (true_levels_pall _ c0) Hbf Hbr).
Qed.

(** and, or, nand, nor, xor, equiv, imp, imp_strict *)
Theorem zapply_op_sound : forall op fuel s c f g,
  ZbddOK s -> ZChainOK s -> ZCacheOKB s c -> ref_ok s f -> ref_ok s g -> S (nlevels s) <= fuel ->
  exists s' c' r, zapply_op gt C cget cadd fuel s c op f g = Some (s', c', r) /\ zstate_ok s s' c' r /\
    forall c0, choice_ok s c0 ->
      exists bf bg, zview_of s f c0 = Some bf /\ zview_of s g c0 = Some bg /\
        zview_of s' r c0 = Some (eval_bop op bf bg).
Proof.
  intros op fuel s c f g B Hc O Of Og Hf.
  destruct (zden_exists s f B Of) as [P DF]. destruct (zden_exists s g B Og) as [Q DG].
  destruct (zstate_of_result s _ _ B Hc
              (zapply_op_ok gt C cget cadd Hlossy op fuel s c f g P Q B Hc O DF DG ltac:(lia)))
    as (s' & c' & r & E & St & D).
  exists s', c', r. split; [exact E|]. split; [exact St|].
  destruct St as (B' & _ & X & _ & _). intros c0 Hc0.
  destruct (zden_view s f P c0 B DF Hc0) as [bf [Ef Hbf]].
  destruct (zden_view s g Q c0 B DG Hc0) as [bg [Eg Hbg]].
  destruct (zden_view_ext s s' r _ c0 B' X D Hc0) as [br [Er Hbr]].
  exists bf, bg. split; [exact Ef|]. split; [exact Eg|]. rewrite Er. f_equal.
  apply (pop_view (nlevels s) op P Q _ bf bg br (true_levels_pall _ c0) Hbf Hbg Hbr).
Qed.

(** ite *)
Theorem zapply_ite_sound : forall fuel s c f g h,
  ZbddOK s -> ZChainOK s -> ZCacheOKB s c -> ref_ok s f -> ref_ok s g -> ref_ok s h ->
  S (nlevels s) <= fuel ->
  exists s' c' r, zapply_ite gt C cget cadd fuel s c f g h = Some (s', c', r) /\ zstate_ok s s' c' r /\
    forall c0, choice_ok s c0 ->
      exists bf bg bh, zview_of s f c0 = Some bf /\ zview_of s g c0 = Some bg /\ zview_of s h c0 = Some bh /\
        zview_of s' r c0 = Some (if bf then bg else bh).
Proof.
  intros fuel s c f g h B Hc O Of Og Oh Hf.
  destruct (zden_exists s f B Of) as [P DF]. destruct (zden_exists s g B Og) as [Q DG].
  destruct (zden_exists s h B Oh) as [R DH].
  destruct (zstate_of_result s _ _ B Hc
              (zapply_ite_ok gt C cget cadd Hlossy fuel s c f g h P Q R B Hc O DF DG DH ltac:(lia)))
    as (s' & c' & r & E & St & D).
  exists s', c', r. split; [exact E|]. split; [exact St|].
  destruct St as (B' & _ & X & _ & _). intros c0 Hc0.
  destruct (zden_view s f P c0 B DF Hc0) as [bf [Ef Hbf]].
  destruct (zden_view s g Q c0 B DG Hc0) as [bg [Eg Hbg]].
  destruct (zden_view s h R c0 B DH Hc0) as [bh [Eh Hbh]].
  destruct (zden_view_ext s s' r _ c0 B' X D Hc0) as [br [Er Hbr]].
  exists bf, bg, bh. split; [exact Ef|]. split; [exact Eg|]. split; [exact Eh|]. rewrite Er. f_equal.
  apply (pite_view P Q R _ bf bg bh br Hbf Hbg Hbh Hbr).
Qed.

(** negated variable *)
Theorem znot_var_sound : forall fuel s c var,
  ZbddOK s -> ZChainOK s -> ZCacheOKB s c -> var < length (s_v2l s) -> S (nlevels s) <= fuel ->
  exists L s' c' r, nth_error (s_v2l s) var = Some L /\
    znot_var gt C cget cadd fuel s c var = Some (s', c', r) /\ zstate_ok s s' c' r /\
    forall c0, choice_ok s c0 -> zview_of s' r c0 = Some (negb (Nat.eqb (c0 L) 0)).
Proof.
  intros fuel s c var B Hc O Hv Hf.
  destruct (znot_var_ok gt C cget cadd Hlossy fuel s c var B Hc O Hv ltac:(lia)) as [L [Ev Hr]].
  destruct (zstate_of_result s _ _ B Hc Hr) as (s' & c' & r & E & St & D).
  exists L, s', c', r. split; [exact Ev|]. split; [exact E|]. split; [exact St|].
  destruct St as (B' & _ & X & _ & _). intros c0 Hc0.
  destruct (zden_view_ext s s' r _ c0 B' X D Hc0) as [br [Er Hbr]].
  rewrite Er. f_equal.
  apply (pnot_view (nlevels s) _ _ _ br (true_levels_pall _ c0)
           (pvar_view (nlevels s) L c0 (v2l_range s var L (zo_wf s B) Ev)) Hbr).
Qed.

(** the result is the only edge with its view: the same edge is returned whatever the cache
    holds, whatever the operand order, and it is the edge any earlier computation of the same
    function left in the table *)
Theorem zresult_unique : forall s s' r d, ZbddOK s -> ZbddOK s' -> extends s s' ->
  ref_ok s' r -> ref_ok s d ->
  (forall c0, choice_ok s c0 -> zview_of s' r c0 = zview_of s d c0) -> r = d.
Proof.
  intros s s' r d B B' X Or Od Hv. apply (zview_canon s' r d B' Or (ext_ref_ok _ _ _ X Od)).
  intros c0 Hc0. assert (Hc0' : choice_ok s c0) by (apply (ext_choice_ok _ _ c0 X); exact Hc0).
  rewrite (zview_extends s s' d c0 B B' X Od Hc0'). apply Hv. exact Hc0'.
Qed.

(** in particular: two runs of a binary operator on the same operands - other cache, other
    operand order, other fuel - return the same edge (in whatever tables they end up) *)
Theorem zapply_op_history_independent : forall gt2 (C2 : Type) cget2 cadd2, zlossy C2 cget2 cadd2 ->
  forall op fuel fuel2 s c (c2 : C2) f g s1 c1 r1 s2 c2' r2,
  ZbddOK s -> ZChainOK s -> ZCacheOKB s c -> ZbddBoolProofs.ZCacheOKB C2 cget2 s c2 ->
  ref_ok s f -> ref_ok s g -> S (nlevels s) <= fuel -> S (nlevels s) <= fuel2 ->
  zapply_op gt C cget cadd fuel s c op f g = Some (s1, c1, r1) ->
  zapply_op gt2 C2 cget2 cadd2 fuel2 s c2 op f g = Some (s2, c2', r2) ->
  forall c0, choice_ok s c0 -> zview_of s1 r1 c0 = zview_of s2 r2 c0.
Proof.
  intros gt2 C2 cget2 cadd2 Hl2 op fuel fuel2 s c c2 f g s1 c1 r1 s2 c2' r2 B Hc O O2 Of Og Hf Hf2 E1 E2 c0 Hc0.
  destruct (zden_exists s f B Of) as [P DF]. destruct (zden_exists s g B Og) as [Q DG].
  destruct (zapply_op_ok gt C cget cadd Hlossy op fuel s c f g P Q B Hc O DF DG ltac:(lia))
    as (s1' & c1' & r1' & E1' & B1 & X1 & _ & D1).
  destruct (zapply_op_ok gt2 C2 cget2 cadd2 Hl2 op fuel2 s c2 f g P Q B Hc O2 DF DG ltac:(lia))
    as (s2' & c2'' & r2' & E2' & B2 & X2 & _ & D2).
  rewrite E1 in E1'. inversion E1'; subst s1' c1' r1'. rewrite E2 in E2'. inversion E2'; subst s2' c2'' r2'.
  destruct (zden_view_ext s s1 r1 _ c0 B1 X1 D1 Hc0) as [b1 [V1 H1]].
  destruct (zden_view_ext s s2 r2 _ c0 B2 X2 D2 Hc0) as [b2 [V2 H2]].
  rewrite V1, V2. f_equal. apply (bool_iff_eq b1 b2 _ H1 H2).
Qed.

End ZBoolTop.

(** constants *)
Theorem zconst_sound : forall s b, ZbddOK s -> ZChainOK s ->
  exists r, zconst s b = Some r /\ ref_ok s r /\
    forall c0, choice_ok s c0 -> zview_of s r c0 = Some b.
Proof.
  intros s b B Hc. destruct (zconst_ok s b B Hc) as [r [E D]]. exists r. split; [exact E|].
  split; [apply (zden_ok _ _ _ D)|]. intros c0 Hc0.
  destruct (zden_view s r _ c0 B D Hc0) as [br [Er Hbr]]. rewrite Er. f_equal.
  destruct b.
  - destruct br; [reflexivity|]. apply Hbr. apply true_levels_pall.
  - destruct br; [|reflexivity]. destruct (proj1 Hbr eq_refl).
Qed.

(** variables *)
Theorem zvar_sound : forall s var, ZbddOK s -> ZChainOK s -> var < length (s_v2l s) ->
  exists L s' r, nth_error (s_v2l s) var = Some L /\ zvar s var = Some (s', r) /\
    ZbddOK s' /\ ZChainOK s' /\ extends s s' /\ ref_ok s' r /\
    forall c0, choice_ok s c0 -> zview_of s' r c0 = Some (Nat.eqb (c0 L) 0).
Proof.
  intros s var B Hc Hv. destruct (zvar_ok s var B Hc Hv) as (L & s' & r & Ev & Ez & B' & X & D).
  exists L, s', r. split; [exact Ev|]. split; [exact Ez|]. split; [exact B'|].
  split; [apply (zchain_extends s s' B B' X Hc)|]. split; [exact X|]. split; [apply (zden_ok _ _ _ D)|].
  intros c0 Hc0.
  destruct (zden_view_ext s s' r _ c0 B' X D Hc0) as [br [Er Hbr]].
  rewrite Er. f_equal.
  apply (bool_iff_eq br _ _ Hbr (pvar_view (nlevels s) L c0 (v2l_range s var L (zo_wf s B) Ev))).
Qed.

(** ** In terms of assignments (variable |-> bool) *)

Lemma zbfun_of_view : forall s r a b, zview_of s r (choice_of s a) = Some b -> zbfun_of s r a = b.
Proof. intros s r a b E. unfold zbfun_of. rewrite E. destruct b; reflexivity. Qed.

Lemma choice_of_ext : forall s s' a, extends s s' -> choice_of s' a = choice_of s a.
Proof. intros s s' a X. unfold choice_of. rewrite (ext_l2v _ _ X). reflexivity. Qed.

Section ZBfun.
Variable gt : ref -> ref -> bool.
Variable C : Type.
Variable cget : C -> N -> list ref -> list nat -> option ref.
Variable cadd : C -> N -> list ref -> list nat -> ref -> C.
Hypothesis Hlossy : zlossy C cget cadd.

Notation ZCacheOKB := (ZCacheOKB C cget).

Theorem zapply_not_bfun : forall s c f,
  ZbddOK s -> ZChainOK s -> ZCacheOKB s c -> ref_ok s f ->
  exists s' c' r, zapply_not gt C cget cadd (S (nlevels s)) s c f = Some (s', c', r) /\
    zstate_ok C cget s s' c' r /\
    forall a, zbfun_of s' r a = lift1 negb (zbfun_of s f) a.
Proof.
  intros s c f B Hc O Of.
  destruct (zapply_not_sound gt C cget cadd Hlossy _ s c f B Hc O Of (le_n _)) as (s' & c' & r & E & St & Hv).
  exists s', c', r. split; [exact E|]. split; [exact St|]. intros a.
  destruct St as (_ & _ & X & _ & _).
  destruct (Hv (choice_of s a) (choice_of_ok s a (zo_kind s B))) as [bf [Ef Er]].
  unfold lift1. rewrite (zbfun_of_view s f a bf Ef).
  apply zbfun_of_view. rewrite (choice_of_ext s s' a X). exact Er.
Qed.

Theorem zapply_op_bfun : forall op s c f g,
  ZbddOK s -> ZChainOK s -> ZCacheOKB s c -> ref_ok s f -> ref_ok s g ->
  exists s' c' r, zapply_op gt C cget cadd (S (nlevels s)) s c op f g = Some (s', c', r) /\
    zstate_ok C cget s s' c' r /\
    forall a, zbfun_of s' r a = lift2 op (zbfun_of s f) (zbfun_of s g) a.
Proof.
  intros op s c f g B Hc O Of Og.
  destruct (zapply_op_sound gt C cget cadd Hlossy op _ s c f g B Hc O Of Og (le_n _))
    as (s' & c' & r & E & St & Hv).
  exists s', c', r. split; [exact E|]. split; [exact St|]. intros a.
  destruct St as (_ & _ & X & _ & _).
  destruct (Hv (choice_of s a) (choice_of_ok s a (zo_kind s B))) as [bf [bg [Ef [Eg Er]]]].
  unfold lift2. rewrite (zbfun_of_view s f a bf Ef), (zbfun_of_view s g a bg Eg).
  apply zbfun_of_view. rewrite (choice_of_ext s s' a X). exact Er.
Qed.

Theorem zapply_ite_bfun : forall s c f g h,
  ZbddOK s -> ZChainOK s -> ZCacheOKB s c -> ref_ok s f -> ref_ok s g -> ref_ok s h ->
  exists s' c' r, zapply_ite gt C cget cadd (S (nlevels s)) s c f g h = Some (s', c', r) /\
    zstate_ok C cget s s' c' r /\
    forall a, zbfun_of s' r a = ite_s (zbfun_of s f) (zbfun_of s g) (zbfun_of s h) a.
Proof.
  intros s c f g h B Hc O Of Og Oh.
  destruct (zapply_ite_sound gt C cget cadd Hlossy _ s c f g h B Hc O Of Og Oh (le_n _))
    as (s' & c' & r & E & St & Hv).
  exists s', c', r. split; [exact E|]. split; [exact St|]. intros a.
  destruct St as (_ & _ & X & _ & _).
  destruct (Hv (choice_of s a) (choice_of_ok s a (zo_kind s B))) as [bf [bg [bh [Ef [Eg [Eh Er]]]]]].
  unfold ite_s. rewrite (zbfun_of_view s f a bf Ef), (zbfun_of_view s g a bg Eg), (zbfun_of_view s h a bh Eh).
  apply zbfun_of_view. rewrite (choice_of_ext s s' a X). exact Er.
Qed.

(** the level of a variable reads the variable's value *)
Lemma choice_of_v2l : forall s a var L, WF s -> nth_error (s_v2l s) var = Some L ->
  Nat.eqb (choice_of s a L) 0 = a var.
Proof.
  intros s a var L H Ev.
  assert (Hv : var < length (s_v2l s)) by (apply nth_error_Some; congruence).
  destruct (wf_perm_v2l s H var Hv) as [L' [E1 E2]]. rewrite Ev in E1. inversion E1; subst L'.
  unfold choice_of. rewrite E2. destruct (a var); reflexivity.
Qed.

Theorem znot_var_bfun : forall s c var,
  ZbddOK s -> ZChainOK s -> ZCacheOKB s c -> var < nlevels s ->
  exists s' c' r, znot_var gt C cget cadd (S (nlevels s)) s c var = Some (s', c', r) /\
    zstate_ok C cget s s' c' r /\
    forall a, zbfun_of s' r a = negb (var_s var a).
Proof.
  intros s c var B Hc O Hv. pose proof (zo_wf s B) as H.
  assert (Hv' : var < length (s_v2l s)) by (rewrite (wf_perm_len s H); exact Hv).
  destruct (znot_var_sound gt C cget cadd Hlossy _ s c var B Hc O Hv' (le_n _))
    as (L & s' & c' & r & Ev & E & St & Hvw).
  exists s', c', r. split; [exact E|]. split; [exact St|]. intros a.
  destruct St as (_ & _ & X & _ & _).
  apply zbfun_of_view. rewrite (choice_of_ext s s' a X).
  rewrite (Hvw (choice_of s a) (choice_of_ok s a (zo_kind s B))).
  rewrite (choice_of_v2l s a var L H Ev). reflexivity.
Qed.

End ZBfun.

Theorem zconst_bfun : forall s b, ZbddOK s -> ZChainOK s ->
  exists r, zconst s b = Some r /\ ref_ok s r /\ forall a, zbfun_of s r a = const_s b a.
Proof.
  intros s b B Hc. destruct (zconst_sound s b B Hc) as [r [E [O Hv]]]. exists r.
  split; [exact E|]. split; [exact O|]. intros a. apply zbfun_of_view.
  apply Hv. apply (choice_of_ok s a (zo_kind s B)).
Qed.

Theorem zvar_bfun : forall s var, ZbddOK s -> ZChainOK s -> var < nlevels s ->
  exists s' r, zvar s var = Some (s', r) /\ ZbddOK s' /\ ZChainOK s' /\ extends s s' /\ ref_ok s' r /\
    forall a, zbfun_of s' r a = var_s var a.
Proof.
  intros s var B Hc Hv. pose proof (zo_wf s B) as H.
  assert (Hv' : var < length (s_v2l s)) by (rewrite (wf_perm_len s H); exact Hv).
  destruct (zvar_sound s var B Hc Hv') as (L & s' & r & Ev & Ez & B' & Hc' & X & O & Hvw).
  exists s', r. split; [exact Ez|]. split; [exact B'|]. split; [exact Hc'|]. split; [exact X|].
  split; [exact O|]. intros a. apply zbfun_of_view. rewrite (choice_of_ext s s' a X).
  rewrite (Hvw (choice_of s a) (choice_of_ok s a (zo_kind s B))).
  rewrite (choice_of_v2l s a var L H Ev). reflexivity.
Qed.

(** ** Evaluation *)

(** the view reads the choice at real levels only *)
Lemma all_lo_ext_lt : forall c c' cnt from,
  (forall l, from <= l < from + cnt -> c l = c' l) -> all_lo c from cnt = all_lo c' from cnt.
Proof.
  induction cnt as [|k IH]; intros from Hcc; simpl; [reflexivity|].
  rewrite (Hcc from) by lia. f_equal. apply IH. intros l Hl. apply Hcc. lia.
Qed.

Lemma semz_ext_lt : forall s, WF s -> forall f lvl r c c',
  (forall l, lvl <= l < nlevels s -> c l = c' l) -> semz s f lvl r c = semz s f lvl r c'.
Proof.
  intros s H. induction f as [|f IH]; intros lvl r c c' Hcc; destruct r as [t|id]; try reflexivity.
  1, 2: rewrite !semz_T, (all_lo_ext_lt c c' _ lvl) by (intros l Hl; apply Hcc; lia); reflexivity.
  rewrite !semz_S. destruct (find_node s id) as [nd|] eqn:En; [|reflexivity].
  pose proof (wf_level s H id nd En) as HL.
  destruct (Nat.ltb_spec (nlevel nd) lvl) as [Hlt|Hge]; [reflexivity|].
  rewrite (all_lo_ext_lt c c' _ lvl) by (intros l Hl; apply Hcc; lia).
  rewrite <- (Hcc (nlevel nd)) by lia.
  destruct (all_lo c' lvl (nlevel nd - lvl)); [|reflexivity].
  destruct (nth_error (nchildren nd) (c (nlevel nd))) as [e|]; [|reflexivity].
  apply IH. intros l Hl. apply Hcc. lia.
Qed.

(** the choice function of the bit set [values] *)
Definition cv (values : nat -> bool) : nat -> nat := fun l => if values l then 0 else 1.

Lemma cv_lt2 : forall values l, cv values l < 2.
Proof. intros values l. unfold cv. destruct (values l); lia. Qed.

Lemma nat_list_eqb_nil : forall l, nat_list_eqb l [] = Nat.eqb (length l) 0.
Proof. destruct l; reflexivity. Qed.

(** the walk of [eval_edge]: with [ones] = [k] + the number of true levels from [lvl] on,
    the walk never underflows and returns "[k] = 0 and the view from [lvl] is true" *)
Theorem zeval_walk_sem : forall s, ZbddOK s -> forall fuel lvl r values k,
  ref_ok s r -> lvl <= rlevel s r -> nlevels s - rlevel s r < fuel ->
  exists b, semz s fuel lvl r (cv values) = Some b /\
    zeval_walk fuel s r values (k + length (true_levels (cv values) lvl (nlevels s - lvl)))
      = Some (Nat.eqb k 0 && b).
Proof.
  intros s B. pose proof (zo_wf s B) as H. pose proof (zo_kind s B) as Hk.
  induction fuel as [|f IH]; intros lvl r values k O Hl Hf; [lia|].
  set (c := cv values).
  destruct r as [t|id].
  - destruct O as [v Ev]. rewrite semz_T, Ev. simpl zeval_walk. rewrite Ev.
    eexists. split; [reflexivity|]. f_equal.
    rewrite (all_lo_true_levels c _ lvl (cv_lt2 values)), nat_list_eqb_nil.
    destruct (length (true_levels c lvl (nlevels s - lvl))) as [|m].
    + rewrite Nat.add_0_r. simpl. destruct (Nat.eqb k 0), (N.eqb v 1); reflexivity.
    + replace (k + S m) with (S (k + m)) by lia. simpl.
      rewrite andb_false_r, andb_false_r. reflexivity.
  - destruct O as [nd En]. rewrite (rlevel_node s id nd En) in Hl, Hf.
    pose proof (wf_level s H id nd En) as HL. set (L := nlevel nd) in *.
    rewrite semz_S, En. simpl zeval_walk. rewrite En, (wf_stored s H id nd En). fold L.
    destruct (Nat.ltb_spec L lvl) as [Hlt|_]; [lia|].
    destruct (zchildren s H Hk id nd En) as [hi [lo Ec]].
    destruct (zchild_ok s H id nd hi lo En Ec) as [Oh [Lh [Ol Ll]]]. fold L in Lh, Ll.
    pose proof (rlevel_le s H (eref hi)). pose proof (rlevel_le s H (eref lo)).
    (* the true levels split at the node's level *)
    replace (nlevels s - lvl) with ((L - lvl) + S (nlevels s - S L)) by lia.
    rewrite true_levels_app, app_length. replace (lvl + (L - lvl)) with L by lia.
    set (a := length (true_levels c lvl (L - lvl))).
    assert (Ea : all_lo c lvl (L - lvl) = Nat.eqb a 0).
    { rewrite (all_lo_true_levels c _ lvl (cv_lt2 values)). apply nat_list_eqb_nil. }
    rewrite Ea. simpl true_levels. rewrite Ec.
    destruct (values L) eqn:Ev.
    + (* the variable is true: hi child, one true level consumed *)
      assert (EcL : c L = 0) by (unfold c, cv; rewrite Ev; reflexivity). rewrite EcL.
      simpl Nat.eqb. cbv iota. simpl nth_error. simpl length.
      replace (k + (a + S (length (true_levels c (S L) (nlevels s - S L)))))
        with (S ((k + a) + length (true_levels c (S L) (nlevels s - S L)))) by lia.
      destruct (IH (S L) (eref hi) values (k + a) Oh ltac:(lia) ltac:(lia)) as [b' [Eb' Ew']].
      fold c in Eb', Ew'. rewrite Ew'.
      destruct a as [|a'].
      * simpl Nat.eqb. cbv iota. exists b'. split; [exact Eb'|]. rewrite Nat.add_0_r. reflexivity.
      * simpl Nat.eqb. cbv iota. exists false. split; [reflexivity|].
        replace (k + S a') with (S (k + a')) by lia. simpl. rewrite andb_false_r. reflexivity.
    + assert (EcL : c L = 1) by (unfold c, cv; rewrite Ev; reflexivity). rewrite EcL.
      simpl Nat.eqb. cbv iota. simpl nth_error.
      replace (k + (a + length (true_levels c (S L) (nlevels s - S L))))
        with ((k + a) + length (true_levels c (S L) (nlevels s - S L))) by lia.
      destruct (IH (S L) (eref lo) values (k + a) Ol ltac:(lia) ltac:(lia)) as [b' [Eb' Ew']].
      fold c in Eb', Ew'. rewrite Ew'.
      destruct a as [|a'].
      * simpl Nat.eqb. cbv iota. exists b'. split; [exact Eb'|]. rewrite Nat.add_0_r. reflexivity.
      * simpl Nat.eqb. cbv iota. exists false. split; [reflexivity|].
        replace (k + S a') with (S (k + a')) by lia. simpl. rewrite andb_false_r. reflexivity.
Qed.

Lemma true_levels_false : forall cnt from, true_levels (cv (fun _ => false)) from cnt = [].
Proof. induction cnt as [|k IH]; intros from; simpl; [reflexivity | apply IH]. Qed.

(** the first loop keeps [ones] = number of set bits; set bits are real levels *)
Lemma zeval_args_inv : forall s, WF s -> forall args values ones values' ones',
  (forall l, values l = true -> l < nlevels s) ->
  ones = length (true_levels (cv values) 0 (nlevels s)) ->
  zeval_args s args values ones = Some (values', ones') ->
  (forall l, values' l = true -> l < nlevels s) /\
  ones' = length (true_levels (cv values') 0 (nlevels s)).
Proof.
  intros s H. induction args as [|[var val] rest IH]; intros values ones values' ones' Hb Ho E.
  - simpl in E. inversion E; subst. auto.
  - simpl in E. destruct (nth_error (s_v2l s) var) as [L|] eqn:Ev; [|discriminate].
    pose proof (v2l_range s var L H Ev) as HL.
    destruct (Bool.eqb (values L) val) eqn:Eq; [apply (IH _ _ _ _ Hb Ho E)|].
    apply (IH _ _ _ _) in E; [exact E| |].
    + intros l. destruct (Nat.eqb_spec l L) as [->|Hne]; [intros _; exact HL | apply Hb].
    + (* the count changes by one at level L *)
      set (values2 := fun l => if Nat.eqb l L then val else values l).
      assert (Hsplit : forall vs, length (true_levels (cv vs) 0 (nlevels s)) =
                length (true_levels (cv vs) 0 L) + (if vs L then 1 else 0) +
                length (true_levels (cv vs) (S L) (nlevels s - S L))).
      { intros vs. replace (nlevels s) with (L + S (nlevels s - S L)) at 1 by lia.
        rewrite true_levels_app, app_length. simpl true_levels. unfold cv at 2.
        destruct (vs L); simpl; lia. }
      rewrite (Hsplit values2). rewrite (Hsplit values) in Ho.
      assert (E1 : true_levels (cv values2) 0 L = true_levels (cv values) 0 L).
      { apply true_levels_ext. intros l Hl. unfold cv, values2.
        destruct (Nat.eqb_spec l L); [lia | reflexivity]. }
      assert (E2 : true_levels (cv values2) (S L) (nlevels s - S L) = true_levels (cv values) (S L) (nlevels s - S L)).
      { apply true_levels_ext. intros l Hl. unfold cv, values2.
        destruct (Nat.eqb_spec l L); [lia | reflexivity]. }
      rewrite E1, E2. unfold values2 at 1. rewrite Nat.eqb_refl.
      destruct (values L), val; simpl in Eq; try discriminate; lia.
Qed.

(** what the bit set holds when the argument list is consistent with an assignment [a] and
    lists every variable *)
Lemma zeval_args_values : forall s (a : asg), WF s -> forall args values ones values' ones',
  (forall v b, In (v, b) args -> b = a v) ->
  zeval_args s args values ones = Some (values', ones') ->
  forall l, values' l =
    if existsb (fun p : nat * bool => match nth_error (s_v2l s) (fst p) with
                                      | Some lv => Nat.eqb l lv | None => false end) args
    then match nth_error (s_l2v s) l with Some v => a v | None => values l end
    else values l.
Proof.
  intros s a H. induction args as [|[v b] rest IH]; intros values ones values' ones' Hall E l.
  - simpl in E. inversion E; subst. reflexivity.
  - simpl in E. destruct (nth_error (s_v2l s) v) as [L|] eqn:Ev; [|discriminate].
    assert (Hv : v < length (s_v2l s)) by (apply nth_error_Some; congruence).
    destruct (wf_perm_v2l s H v Hv) as [L' [E1 E2]]. rewrite Ev in E1. inversion E1; subst L'.
    assert (Hb : b = a v) by (apply Hall; left; reflexivity).
    assert (Hrest : forall v' b', In (v', b') rest -> b' = a v') by (intros v' b' Hin; apply Hall; right; exact Hin).
    simpl existsb. rewrite Ev.
    destruct (Bool.eqb (values L) b) eqn:Eq.
    + rewrite (IH _ _ _ _ Hrest E l).
      destruct (Nat.eqb_spec l L) as [->|Hne]; simpl; [|reflexivity].
      rewrite E2. apply Bool.eqb_prop in Eq. rewrite Eq, Hb.
      destruct (existsb _ rest); reflexivity.
    + rewrite (IH _ _ _ _ Hrest E l).
      destruct (Nat.eqb_spec l L) as [->|Hne]; simpl; [|reflexivity].
      rewrite E2, Hb. destruct (existsb _ rest); reflexivity.
Qed.

Lemma zeval_args_total : forall s args values ones,
  (forall v b, In (v, b) args -> v < length (s_v2l s)) ->
  exists values' ones', zeval_args s args values ones = Some (values', ones').
Proof.
  intros s. induction args as [|[v b] rest IH]; intros values ones Hall; [simpl; eauto|].
  simpl. destruct (nth_error (s_v2l s) v) as [L|] eqn:Ev.
  - destruct (Bool.eqb (values L) b); apply IH; intros v' b' Hin; apply (Hall v' b'); right; exact Hin.
  - apply nth_error_None in Ev. specialize (Hall v b (or_introl eq_refl)). lia.
Qed.

(** [eval_edge] agrees with the node-by-node interpretation under the choices of the bit set *)
Theorem zeval_edge_sem : forall s r args, ZbddOK s -> ref_ok s r ->
  (forall v b, In (v, b) args -> v < length (s_v2l s)) ->
  exists values ones, zeval_args s args (fun _ => false) 0 = Some (values, ones) /\
    zeval_edge s r args = zview_of s r (cv values) /\ exists b, zview_of s r (cv values) = Some b.
Proof.
  intros s r args B O Hall. pose proof (zo_wf s B) as H.
  destruct (zeval_args_total s args (fun _ => false) 0 Hall) as [values [ones E]].
  exists values, ones. split; [exact E|]. unfold zeval_edge. rewrite E.
  assert (H0 : 0 = length (true_levels (cv (fun _ => false)) 0 (nlevels s)))
    by (rewrite true_levels_false; reflexivity).
  assert (Hb0 : forall l, (fun _ : nat => false) l = true -> l < nlevels s) by (intros l Hx; discriminate).
  destruct (zeval_args_inv s H args (fun _ => false) 0 values ones Hb0 H0 E) as [_ Ho].
  pose proof (rlevel_le s H r).
  destruct (zeval_walk_sem s B (S (nlevels s)) 0 r values 0 O ltac:(lia) ltac:(lia)) as [b [Eb Ew]].
  rewrite Nat.sub_0_r in Ew. simpl plus in Ew. rewrite <- Ho in Ew.
  unfold zview_of. rewrite Ew, Eb. simpl. split; [reflexivity | eauto].
Qed.

(** for an argument list that gives every variable its value under [a], [eval_edge] returns the
    value of the reference's function at [a] *)
Theorem zeval_edge_assignment : forall s r (a : asg) args, ZbddOK s -> ref_ok s r ->
  (forall v b, In (v, b) args -> b = a v /\ v < nlevels s) ->
  (forall v, v < nlevels s -> In v (map fst args)) ->
  zeval_edge s r args = Some (zbfun_of s r a).
Proof.
  intros s r a args B O Hcons Hall. pose proof (zo_wf s B) as H. pose proof (zo_kind s B) as Hk.
  assert (Hlen : length (s_v2l s) = nlevels s) by (apply (wf_perm_len s H)).
  destruct (zeval_edge_sem s r args B O) as (values & ones & E & Ee & [b Eb]).
  { intros v b0 Hin. destruct (Hcons v b0 Hin). lia. }
  rewrite Ee, Eb. f_equal. symmetry. apply zbfun_of_view. rewrite <- Eb.
  unfold zview_of. apply (semz_ext_lt s H). intros l [_ Hln]. unfold choice_of, cv.
  rewrite (zeval_args_values s a H args _ _ _ _ (fun v b0 Hin => proj1 (Hcons v b0 Hin)) E l).
  destruct (nth_error (s_l2v s) l) as [v|] eqn:El.
  - assert (Hl : l < length (s_l2v s)) by (apply nth_error_Some; congruence).
    destruct (wf_perm_l2v s H l Hl) as [v' [E1 E2]]. rewrite El in E1. inversion E1; subst v'.
    assert (Hv : v < nlevels s) by (rewrite <- Hlen; apply nth_error_Some; congruence).
    assert (Hex : existsb (fun p : nat * bool => match nth_error (s_v2l s) (fst p) with
                              | Some lv => Nat.eqb l lv | None => false end) args = true).
    { apply existsb_exists. specialize (Hall v Hv). apply in_map_iff in Hall.
      destruct Hall as [[v0 b0] [Ev Hin]]. simpl in Ev. subst v0.
      exists (v, b0). split; [exact Hin|]. simpl. rewrite E2. apply Nat.eqb_refl. }
    rewrite Hex. destruct (a v); reflexivity.
  - apply nth_error_None in El. unfold nlevels in Hln. lia.
Qed.

(** ** Cofactors *)

(** [cofactors] = the children of the root = (subset1, subset0) of the top-most variable:
    as families of the documented reading, and literally as what the model of
    [subset1_edge] / [subset0_edge] returns for that variable *)
Theorem zcofactors_sound : forall C cget cadd s (c : C) r t e, ZbddOK s -> ref_ok s r ->
  zcofactors s r = Some (t, e) ->
  exists id nd var F Ft Fe,
    r = RN id /\ find_node s id = Some nd /\ rlevel s r = nlevel nd /\
    nth_error (s_l2v s) (nlevel nd) = Some var /\ nth_error (s_v2l s) var = Some (nlevel nd) /\
    ref_ok s t /\ ref_ok s e /\
    fam_of s r = Some F /\ fam_of s t = Some Ft /\ fam_of s e = Some Fe /\
    feq Ft (f_subset1 (nlevel nd) F) /\ feq Fe (f_subset0 (nlevel nd) F) /\
    (forall fuel, zsubset_top C cget cadd (S fuel) s c ZSubset1 r var = Some (s, c, t)) /\
    (forall fuel, zsubset_top C cget cadd (S fuel) s c ZSubset0 r var = Some (s, c, e)).
Proof.
  intros C cget cadd s c r t e B O Hc. pose proof (zo_wf s B) as H. pose proof (zo_kind s B) as Hk.
  unfold zcofactors in Hc. destruct r as [x|id].
  { simpl in Hc. destruct (term_val s x); discriminate. }
  destruct O as [nd En]. simpl in Hc. rewrite En in Hc. simpl in Hc.
  destruct (zchildren s H Hk id nd En) as [hi [lo Ec]]. rewrite Ec in Hc. inversion Hc; subst t e.
  pose proof (wf_level s H id nd En) as HL.
  destruct (wf_perm_l2v s H (nlevel nd) HL) as [var [E1 E2]].
  destruct (zden_exists s (RN id) B (ex_intro _ nd En)) as [P D].
  destruct (znode_facts s id nd P B D En)
    as (Sf & _ & Rf & hi' & lo' & PA & PB & Ec' & DA & DB & _ & _ & HP & SA & SB).
  rewrite Ec in Ec'. inversion Ec'; subst hi' lo'.
  destruct (zden_fam s _ _ D) as [F [EF HF]].
  destruct (zden_fam s _ _ DA) as [Ft [EFt HFt]]. destruct (zden_fam s _ _ DB) as [Fe [EFe HFe]].
  exists id, nd, var, F, Ft, Fe.
  split; [reflexivity|]. split; [exact En|]. split; [exact Rf|]. split; [exact E1|]. split; [exact E2|].
  split; [apply (zden_ok _ _ _ DA)|]. split; [apply (zden_ok _ _ _ DB)|].
  split; [exact EF|]. split; [exact EFt|]. split; [exact EFe|].
  split; [|split; [|split]].
  - intros S. rewrite (HFt S), in_f_subset1.
    rewrite <- (psub_node_at ZSubset1 (nlevel nd) PA PB SA SB S). simpl. split.
    + intros (S0 & A1 & A2 & A3). exists S0. split; [apply HF, HP; exact A1 | auto].
    + intros (S0 & A1 & A2 & A3). exists S0. split; [apply HP, HF; exact A1 | auto].
  - intros S. rewrite (HFe S), in_f_subset0.
    rewrite <- (psub_node_at ZSubset0 (nlevel nd) PA PB SA SB S). simpl. split.
    + intros [A1 A2]. split; [apply HF, HP; exact A1 | exact A2].
    + intros [A1 A2]. split; [apply HP, HF; exact A1 | exact A2].
  - intros fuel. unfold zsubset_top. rewrite E2. simpl. rewrite En, Sf, Nat.compare_refl, Ec. reflexivity.
  - intros fuel. unfold zsubset_top. rewrite E2. simpl. rewrite En, Sf, Nat.compare_refl, Ec. reflexivity.
Qed.

Theorem zcofactors_none : forall s r, ZbddOK s -> ref_ok s r ->
  (zcofactors s r = None <-> exists t, r = RT t).
Proof.
  intros s r B O. pose proof (zo_wf s B) as H. pose proof (zo_kind s B) as Hk.
  unfold zcofactors. destruct r as [t|id].
  - destruct O as [v Ev]. simpl. rewrite Ev. simpl. split; [eauto | reflexivity].
  - destruct O as [nd En]. simpl. rewrite En. simpl.
    destruct (zchildren s H Hk id nd En) as [hi [lo Ec]]. rewrite Ec.
    split; [discriminate | intros [t Ht]; discriminate].
Qed.
