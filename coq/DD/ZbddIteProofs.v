(** * The Boolean interface of the ZBDD kind, part 3: if-then-else and the eight operators

    [zapply_ite_ok], [zapply_op_ok] ([imp f g = ite(f, g, taut(0))]): for every
    lossy cache, operand order and sufficient fuel.  The model of
    DD/ZbddBool.v is the configuration [fresh_id] / [SSeq] of the generic
    recursions ([zapply_ite_g_seq], [zapply_op_g_seq]), which DD/ConfigZbddIte.v
    proves correct for every allocator and schedule ([zapply_ite_g_ok],
    [zapply_op_g_ok]). *)

From Coq Require Import List NArith PArith Bool Arith Lia FMapPositive.
From OxiVerif Require Import DD.Table DD.TableExtra DD.TableProofs DD.Sem DD.Build DD.BuildProofs
  DD.Apply DD.ApplyProofs DD.CanonZbdd DD.FamSpec DD.FamSpecProofs DD.ZbddOps DD.ZbddOpsProofs
  DD.ZbddSubsetProofs DD.ZbddSoundProofs DD.ZbddVars DD.ZbddVarsProofs DD.ZbddBool DD.ZbddBoolProofs
  DD.ZbddXorProofs DD.ConfigProofs DD.ConfigZbdd DD.ConfigZbddProofs DD.ConfigZbddIte.
Import ListNotations.

Section ZIte.
Variable gt : ref -> ref -> bool.
Variable C : Type.
Variable cget : C -> N -> list ref -> list nat -> option ref.
Variable cadd : C -> N -> list ref -> list nat -> ref -> C.
Hypothesis Hlossy : zlossy C cget cadd.

Notation ZCacheOKB := (ZCacheOKB C cget).
Notation zresult_okB := (zresult_okB C cget).

Theorem zapply_ite_ok : forall fuel s c f g h P Q R,
  ZbddOK s -> ZChainOK s -> ZCacheOKB s c -> ZDen s f P -> ZDen s g Q -> ZDen s h R ->
  nlevels s - Nat.min (rlevel s f) (Nat.min (rlevel s g) (rlevel s h)) < fuel ->
  zresult_okB s (zapply_ite gt C cget cadd fuel s c f g h) (pite P Q R).
Proof.
  intros fuel s c f g h P Q R B Hch O DF DG DH Hfuel. rewrite <- zapply_ite_g_seq. apply zres_st_weak.
  apply (zapply_ite_g_ok fresh_id fresh_id_alloc_ok gt C cget cadd Hlossy); assumption.
Qed.

Theorem zapply_op_ok : forall op fuel s c f g P Q,
  ZbddOK s -> ZChainOK s -> ZCacheOKB s c -> ZDen s f P -> ZDen s g Q -> nlevels s < fuel ->
  zresult_okB s (zapply_op gt C cget cadd fuel s c op f g) (pop (nlevels s) op P Q).
Proof.
  intros op fuel s c f g P Q B Hc O DF DG Hf. rewrite <- zapply_op_g_seq. apply zres_wk_weak.
  apply (zapply_op_g_ok fresh_id fresh_id_alloc_ok gt C cget cadd Hlossy); assumption.
Qed.

End ZIte.
