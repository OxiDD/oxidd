(** * Correctness of the ZBDD set operations, part 1 (model: DD/ZbddOps.v)

    - [ZbddOK]: the invariant (well-formed ZBDD table with exactly the
      terminals Empty and Base), decided by [zbdd_ok_b];
    - [ZDen s r P]: reference [r] denotes the family whose members are the
      lists satisfying [P] (through [famz]);
    - [zmk_node_ok]: [reduce] with the zero-suppression rule keeps the table
      well-formed (zero-suppressed, unique), only extends it, and returns an
      edge denoting [lo u { S u {lvl} | S in hi }];
    - the family identities, the terminal cases and the cache invariant of
      union, intersection, difference ([zapply_ok] / [zapply_sound] themselves:
      DD/ZbddXorProofs.v, as an instance of the configuration-generic recursion).

    Part 2 (subset0, subset1, change, singleton, make_node, constants):
    DD/ZbddSubsetProofs.v. *)

From Coq Require Import List NArith PArith Bool Arith Lia FMapPositive.
From OxiVerif Require Import DD.Table DD.TableExtra DD.TableProofs DD.Build DD.BuildProofs
  DD.Apply DD.ApplyProofs DD.CanonZbdd DD.FamSpec DD.FamSpecProofs DD.ZbddOps.
Import ListNotations.

(** ** The invariant *)

Record ZbddOK (s : snap) : Prop := mkZbddOK {
  zo_wf : WF s;
  zo_kind : s_kind s = KZbdd;
  zo_codes : forall t v, term_val s t = Some v -> v = 0%N \/ v = 1%N;
  zo_empty : exists t, term_val s t = Some 0%N;
  zo_base : exists t, term_val s t = Some 1%N
}.

Theorem zbdd_ok_b_spec : forall s, zbdd_ok_b s = true <-> ZbddOK s.
Proof.
  intros s. unfold zbdd_ok_b. rewrite !andb_true_iff, wf_b_spec, forallb_forall, !existsb_exists.
  split.
  - intros [[[[H Hk] Hc] [p0 [I0 E0]]] [p1 [I1 E1]]].
    apply N.eqb_eq in E0. apply N.eqb_eq in E1. destruct p0 as [t0 v0], p1 as [t1 v1]. simpl in *. subst.
    constructor; auto.
    + destruct (s_kind s); simpl in Hk; congruence.
    + intros t v E. apply assoc_N_In in E. specialize (Hc _ E). simpl in Hc.
      apply N.leb_le in Hc. lia.
    + exists t0. apply In_assoc_N; [apply (wf_term_ids s H) | exact I0].
    + exists t1. apply In_assoc_N; [apply (wf_term_ids s H) | exact I1].
  - intros B. pose proof (zo_wf s B) as H.
    destruct (zo_empty s B) as [t0 E0]. destruct (zo_base s B) as [t1 E1].
    split; [split; [split; [split|]|]|].
    + exact H.
    + rewrite (zo_kind s B). reflexivity.
    + intros [t v] Hin. simpl. apply N.leb_le.
      assert (E : term_val s t = Some v) by (apply In_assoc_N; [apply (wf_term_ids s H) | exact Hin]).
      destruct (zo_codes s B t v E); lia.
    + exists (t0, 0%N). split; [apply assoc_N_In; exact E0 | reflexivity].
    + exists (t1, 1%N). split; [apply assoc_N_In; exact E1 | reflexivity].
Qed.

Lemma zbddok_extends : forall s s', ZbddOK s -> extends s s' -> WF s' -> ZbddOK s'.
Proof.
  intros s s' B X H'. constructor.
  - exact H'.
  - rewrite (ext_kind _ _ X). apply (zo_kind s B).
  - intros t v. rewrite (ext_term_val _ _ t X). apply (zo_codes s B).
  - destruct (zo_empty s B) as [t E]. exists t. rewrite (ext_term_val _ _ t X). exact E.
  - destruct (zo_base s B) as [t E]. exists t. rewrite (ext_term_val _ _ t X). exact E.
Qed.

(** the canonicity theorems' side condition follows *)
Lemma zbddok_terms_kind : forall s, ZbddOK s -> terms_kind s.
Proof.
  intros s B. unfold terms_kind. rewrite (zo_kind s B). intros [t v] Hin. simpl.
  apply (zo_codes s B t v). apply In_assoc_N; [apply (wf_term_ids s (zo_wf s B)) | exact Hin].
Qed.

(** ** Terminals *)

Lemma zterm_of_total : forall s b, ZbddOK s -> exists t, term_of s b = Some t.
Proof.
  intros s b B. unfold term_of.
  assert (Hx : exists t, term_val s t = Some (b2c b))
    by (destruct b; [apply (zo_base s B) | apply (zo_empty s B)]).
  destruct Hx as [t Ht]. apply assoc_N_In in Ht. eapply rassoc_N_total; eauto.
Qed.

Lemma zempty_spec : forall s, ZbddOK s ->
  exists t, zempty s = Some (RT t) /\ term_val s t = Some 0%N.
Proof.
  intros s B. destruct (zterm_of_total s false B) as [t E]. exists t. unfold zempty. rewrite E.
  split; [reflexivity|]. apply (term_of_spec s false t (zo_wf s B) E).
Qed.

Lemma zbase_spec : forall s, ZbddOK s ->
  exists t, zbase s = Some (RT t) /\ term_val s t = Some 1%N.
Proof.
  intros s B. destruct (zterm_of_total s true B) as [t E]. exists t. unfold zbase. rewrite E.
  split; [reflexivity|]. apply (term_of_spec s true t (zo_wf s B) E).
Qed.

Lemma is_empty_b_true : forall s r, is_empty_b s r = true ->
  exists t, r = RT t /\ term_val s t = Some 0%N.
Proof.
  intros s [t|id]; unfold is_empty_b, is_term_with; [|discriminate].
  destruct (term_val s t) as [w|] eqn:E; [|discriminate].
  intros Hw. apply N.eqb_eq in Hw. subst. eauto.
Qed.

Lemma is_empty_b_false : forall s t, is_empty_b s (RT t) = false -> term_val s t <> Some 0%N.
Proof.
  intros s t. unfold is_empty_b, is_term_with. intros Hf E. rewrite E in Hf. discriminate.
Qed.

(** a terminal reference is the Empty terminal or the Base terminal *)
Lemma zterm_cases : forall s t, ZbddOK s -> ref_ok s (RT t) ->
  term_val s t = Some 0%N \/ term_val s t = Some 1%N.
Proof.
  intros s t B [v E]. destruct (zo_codes s B t v E) as [->| ->]; auto.
Qed.

(** ** Denotations *)

Definition fpred := lset -> Prop.

Definition ZDen (s : snap) (r : ref) (P : fpred) : Prop :=
  ref_ok s r /\ exists F, fam_of s r = Some F /\ forall S, In S F <-> P S.

Definition peq (P Q : fpred) : Prop := forall S, P S <-> Q S.

(** family of a node with hi family [PA] and lo family [PB] at level [L] *)
Definition node_pred (L : nat) (PA PB : fpred) : fpred :=
  fun S => (exists T, S = L :: T /\ PA T) \/ PB S.

Definition pempty : fpred := fun _ => False.
Definition pbase : fpred := fun S => S = [].

Lemma zden_ext : forall s r P Q, ZDen s r P -> peq P Q -> ZDen s r Q.
Proof.
  intros s r P Q [O [F [E Hm]]] Hpq. split; [exact O|]. exists F. split; [exact E|].
  intros S. rewrite (Hm S). apply Hpq.
Qed.

Lemma zden_unique : forall s r P Q, ZDen s r P -> ZDen s r Q -> peq P Q.
Proof.
  intros s r P Q [_ [F [E Hm]]] [_ [F' [E' Hm']]] S. rewrite E in E'. inversion E'; subst F'.
  rewrite <- (Hm S). apply Hm'.
Qed.

Lemma zden_ok : forall s r P, ZDen s r P -> ref_ok s r.
Proof. intros s r P [O _]. exact O. Qed.

Lemma zden_exists : forall s r, ZbddOK s -> ref_ok s r -> exists P, ZDen s r P.
Proof.
  intros s r B O. destruct (fam_of_total s (zo_wf s B) (zo_kind s B) r O) as [F E].
  exists (fun S => In S F). split; [exact O|]. exists F. split; [exact E | reflexivity].
Qed.

(** members are increasing lists of levels at or below the root *)
Lemma zden_support : forall s r P S, ZbddOK s -> ZDen s r P -> P S ->
  incr_from (rlevel s r) S /\ Forall (fun x => x < nlevels s) S.
Proof.
  intros s r P S B [_ [F [E Hm]]] HP. apply Hm in HP.
  apply (fam_of_members s (zo_wf s B) (zo_kind s B) r F S E HP).
Qed.

Lemma famz_stable : forall s s', WF s -> s_kind s = KZbdd ->
  (forall t, term_val s' t = term_val s t) ->
  (forall id nd, find_node s id = Some nd -> find_node s' id = Some nd) ->
  forall f r, ref_ok s r -> famz s' f r = famz s f r.
Proof.
  intros s s' H Hk Ht Hn. induction f as [|f IH]; intros r Hok; destruct r as [t|id]; try reflexivity.
  1, 2: rewrite !famz_T, Ht; reflexivity.
  rewrite !famz_S. destruct Hok as [nd E]. rewrite E, (Hn id nd E).
  destruct (zchildren s H Hk id nd E) as [hi [lo Ec]]. rewrite Ec.
  destruct (zchild_ok s H id nd hi lo E Ec) as [Oh [_ [Ol _]]].
  rewrite (IH _ Oh), (IH _ Ol). reflexivity.
Qed.

Lemma fam_of_extends : forall s s' r, ZbddOK s -> extends s s' -> ref_ok s r ->
  fam_of s' r = fam_of s r.
Proof.
  intros s s' r B X O. unfold fam_of. rewrite (ext_nlevels _ _ X).
  apply (famz_stable s s' (zo_wf s B) (zo_kind s B) (fun t => ext_term_val _ _ t X) (ext_nodes _ _ X)).
  exact O.
Qed.

Lemma zden_extends : forall s s' r P, ZbddOK s -> extends s s' -> ZDen s r P -> ZDen s' r P.
Proof.
  intros s s' r P B X [O [F [E Hm]]]. split; [apply (ext_ref_ok _ _ _ X O)|].
  exists F. split; [rewrite (fam_of_extends s s' r B X O); exact E | exact Hm].
Qed.

Lemma zden_empty : forall s t, ZbddOK s -> term_val s t = Some 0%N -> ZDen s (RT t) pempty.
Proof.
  intros s t B E. split; [exists 0%N; exact E|]. exists f_empty. split.
  - rewrite (fam_of_term s t 0%N E). reflexivity.
  - intros S. simpl. reflexivity.
Qed.

Lemma zden_base : forall s t, ZbddOK s -> term_val s t = Some 1%N -> ZDen s (RT t) pbase.
Proof.
  intros s t B E. split; [exists 1%N; exact E|]. exists f_base. split.
  - rewrite (fam_of_term s t 1%N E). reflexivity.
  - intros S. unfold pbase. rewrite in_f_base. reflexivity.
Qed.

Lemma zden_node : forall s id nd hi lo PA PB, ZbddOK s ->
  find_node s id = Some nd -> nchildren nd = [hi; lo] ->
  ZDen s (eref hi) PA -> ZDen s (eref lo) PB ->
  ZDen s (RN id) (node_pred (nlevel nd) PA PB).
Proof.
  intros s id nd hi lo PA PB B E Ec [Oh [A [EA HA]]] [Ol [Bf [EB HB]]].
  split; [exists nd; exact E|]. exists (node_fam (nlevel nd) A Bf). split.
  - rewrite (fam_of_node s (zo_wf s B) (zo_kind s B) id nd hi lo E Ec), EA, EB. reflexivity.
  - intros S. rewrite in_node_fam. unfold node_pred. split.
    + intros [[T [ET HT]]|Hb]; [left; exists T; split; [exact ET | apply HA; exact HT] | right; apply HB; exact Hb].
    + intros [[T [ET HT]]|Hb]; [left; exists T; split; [exact ET | apply HA; exact HT] | right; apply HB; exact Hb].
Qed.

(** an inner node's denotation decomposes along its children *)
Lemma zden_node_inv : forall s id nd P, ZbddOK s -> ZDen s (RN id) P ->
  find_node s id = Some nd ->
  exists hi lo PA PB, nchildren nd = [hi; lo] /\
    ZDen s (eref hi) PA /\ ZDen s (eref lo) PB /\
    nlevel nd < rlevel s (eref hi) /\ nlevel nd < rlevel s (eref lo) /\
    peq P (node_pred (nlevel nd) PA PB).
Proof.
  intros s id nd P B D E. pose proof (zo_wf s B) as H. pose proof (zo_kind s B) as Hk.
  destruct (zchildren s H Hk id nd E) as [hi [lo Ec]].
  destruct (zchild_ok s H id nd hi lo E Ec) as [Oh [Lh [Ol Ll]]].
  destruct (zden_exists s (eref hi) B Oh) as [PA DA].
  destruct (zden_exists s (eref lo) B Ol) as [PB DB].
  exists hi, lo, PA, PB.
  split; [exact Ec|]. split; [exact DA|]. split; [exact DB|]. split; [exact Lh|]. split; [exact Ll|].
  apply (zden_unique s (RN id) P (node_pred (nlevel nd) PA PB) D).
  apply (zden_node s id nd hi lo PA PB B E Ec DA DB).
Qed.

(** a reference lying strictly below level [L] has no member that contains [L] or starts above *)
Lemma zden_below : forall s r P L S, ZbddOK s -> ZDen s r P -> L < rlevel s r -> P S ->
  incr_from (Datatypes.S L) S.
Proof.
  intros s r P L S B D Hl HP. destruct (zden_support s r P S B D HP) as [I1 _].
  apply (incr_from_weaken S (rlevel s r)); [lia | exact I1].
Qed.

(** ** Node construction with the zero-suppression rule *)

Section ZInsert.
Variable s : snap.
Variable lvl : nat.
Variables hi lo : ref.
Hypothesis B : ZbddOK s.
Hypothesis Hlvl : lvl < nlevels s.
Hypothesis Ohi : ref_ok s hi.
Hypothesis Olo : ref_ok s lo.
Hypothesis Lhi : lvl < rlevel s hi.
Hypothesis Llo : lvl < rlevel s lo.
Hypothesis Hne : is_empty_b s hi = false.
Hypothesis Hnodup : find_dup s lvl [E hi; E lo] = None.

Let ch := [E hi; E lo].
Let id := fresh_id s.
Let nd0 := mkNode lvl ch lvl 0%N.
Let s' := set_nodes s (PositiveMap.add id nd0 (s_nodes s)).

Lemma zins_wf : WF s'.
Proof.
  pose proof (zo_wf s B) as H. pose proof (zo_kind s B) as Hk.
  pose proof (ins_extends s lvl ch) as X. fold id nd0 s' in X.
  assert (Hred : forall c, reduced s c -> reduced s' c).
  { intros c. unfold reduced. replace (s_kind s') with (s_kind s) by reflexivity. rewrite Hk.
    intros [h [Hh Hn]]. exists h. split; [exact Hh|]. intros t Et.
    rewrite (ext_term_val _ _ t X). apply Hn. exact Et. }
  assert (Hok : forall i nd, find_node s' i = Some nd -> node_ok s' nd).
  { intros i nd E0. destruct (ins_find s lvl ch i nd E0) as [[-> ->]|[Hn E']].
    - unfold node_ok. simpl.
      split; [rewrite Hk; reflexivity|]. split; [reflexivity|]. split; [exact Hlvl|].
      split; [|split].
      + intros e [<-|[<-|[]]]; simpl.
        * split; [apply (ext_ref_ok _ _ _ X Ohi) | rewrite (ext_rlevel _ _ _ X Ohi); exact Lhi].
        * split; [apply (ext_ref_ok _ _ _ X Olo) | rewrite (ext_rlevel _ _ _ X Olo); exact Llo].
      + unfold reduced. replace (s_kind s') with (s_kind s) by reflexivity. rewrite Hk.
        exists (E hi). split; [reflexivity|]. simpl. intros t Et. subst hi.
        rewrite (ext_term_val _ _ t X). apply is_empty_b_false. exact Hne.
      + intros _ e [<-|[<-|[]]]; reflexivity.
    - unfold node_ok.
      split; [apply (wf_arity s H i nd E')|]. split; [apply (wf_stored s H i nd E')|].
      split; [apply (wf_level s H i nd E')|]. split; [|split].
      + intros e He. destruct (wf_child s H i nd e E' He) as [A A'].
        split; [apply (ext_ref_ok _ _ _ X A) | rewrite (ext_rlevel _ _ _ X A); exact A'].
      + apply Hred. apply (wf_reduced s H i nd E').
      + intros Hk' e He. apply (wf_tags s H Hk' i nd e E' He). }
  constructor.
  - apply (wf_perm_len s H).
  - apply (wf_perm_v2l s H).
  - apply (wf_perm_l2v s H).
  - intros i nd E0. apply (Hok i nd E0).
  - intros i nd E0. apply (Hok i nd E0).
  - intros i nd E0. apply (Hok i nd E0).
  - intros i nd e E0. apply (Hok i nd E0).
  - intros i nd E0. apply (Hok i nd E0).
  - intros Hk' i nd e E0. apply (Hok i nd E0). exact Hk'.
  - intros i1 i2 n1 n2 E1 E2 Hl Hc.
    destruct (ins_find s lvl ch i1 n1 E1) as [[-> ->]|[Hn1 E1']];
      destruct (ins_find s lvl ch i2 n2 E2) as [[-> ->]|[Hn2 E2']].
    + reflexivity.
    + exfalso. simpl in Hl, Hc. apply (find_dup_none s lvl ch Hnodup i2 n2 E2'); congruence.
    + exfalso. simpl in Hl, Hc. apply (find_dup_none s lvl ch Hnodup i1 n1 E1'); congruence.
    + apply (wf_unique s H i1 i2 n1 n2 E1' E2' Hl Hc).
  - apply (wf_term_ids s H).
  - apply (wf_term_vals s H).
  - intros h Hh. destruct (wf_handles s H h Hh) as [A A'].
    split; [apply (ext_ref_ok _ _ _ X A) | exact A'].
Qed.

End ZInsert.

(** [reduce] / [reduce_borrowed]: table extended and still well-formed, result
    denotes [lo u { lvl :: T | T in hi }], result at or below [lvl] *)
Theorem zmk_node_ok : forall s lvl hi lo PA PB s' r,
  ZbddOK s -> lvl < nlevels s -> ZDen s hi PA -> ZDen s lo PB ->
  lvl < rlevel s hi -> lvl < rlevel s lo ->
  zmk_node s lvl hi lo = (s', r) ->
  ZbddOK s' /\ extends s s' /\ ZDen s' r (node_pred lvl PA PB) /\ lvl <= rlevel s' r.
Proof.
  intros s lvl hi lo PA PB s' r B Hl DA DB Lh Ll. unfold zmk_node.
  destruct (is_empty_b s hi) eqn:Ee.
  - (* hi = Empty: the node is suppressed *)
    intros Heq. inversion Heq; subst s' r; clear Heq.
    destruct (is_empty_b_true s hi Ee) as [t [-> Et]].
    split; [exact B|]. split; [apply extends_refl|]. split; [|lia].
    apply (zden_ext s lo PB); [exact DB|].
    pose proof (zden_unique s (RT t) PA pempty DA (zden_empty s t B Et)) as Hpe.
    intros S. unfold node_pred. split; [auto|].
    intros [[T [_ HT]]|Hb]; [destruct (proj1 (Hpe T) HT) | exact Hb].
  - unfold get_or_insert. destruct (find_dup s lvl [E hi; E lo]) as [id|] eqn:Ed.
    + intros Heq. inversion Heq; subst s' r; clear Heq. simpl eref.
      destruct (find_dup_some s lvl _ id Ed) as [nd [E0 [El Ec]]].
      split; [exact B|]. split; [apply extends_refl|]. split.
      * rewrite <- El. apply (zden_node s id nd (E hi) (E lo) PA PB B E0 Ec); assumption.
      * simpl. rewrite E0. lia.
    + intros Heq. inversion Heq; subst s' r; clear Heq. simpl eref.
      pose proof (zden_ok _ _ _ DA) as Oh. pose proof (zden_ok _ _ _ DB) as Ol.
      pose proof (zins_wf s lvl hi lo B Hl Oh Ol Lh Ll Ee Ed) as W'.
      pose proof (ins_extends s lvl [E hi; E lo]) as X.
      set (s' := set_nodes s _) in *.
      assert (B' : ZbddOK s') by (apply (zbddok_extends s s' B X W')).
      split; [exact B'|]. split; [exact X|].
      pose proof (ins_find_new s lvl [E hi; E lo]) as En. fold s' in En.
      split.
      * apply (zden_node s' (fresh_id s) _ (E hi) (E lo) PA PB B' En eq_refl);
          simpl eref; apply (zden_extends s s' _ _ B X); assumption.
      * simpl. rewrite En. simpl. lia.
Qed.

(** ** Every reference other than the Empty terminal has a member; a node has
       one that starts with the node's level *)

Lemma fam_nonempty : forall s, ZbddOK s -> forall k r, ref_ok s r ->
  nlevels s - rlevel s r <= k ->
  (forall t, r = RT t -> term_val s t <> Some 0%N) ->
  exists F S, fam_of s r = Some F /\ In S F /\
    forall id nd, r = RN id -> find_node s id = Some nd -> exists T, S = nlevel nd :: T.
Proof.
  intros s B. pose proof (zo_wf s B) as H. pose proof (zo_kind s B) as Hk.
  induction k as [|k IH]; intros r Hok Hlev Hne; destruct r as [t|id].
  1, 3: destruct (zterm_cases s t B Hok) as [E|E]; [exfalso; apply (Hne t eq_refl E)|];
    exists f_base, []; rewrite (fam_of_term s t 1%N E); simpl; split; [reflexivity|];
    split; [left; reflexivity | intros id nd Hx; discriminate].
  - destruct Hok as [nd E]. rewrite (rlevel_node s id nd E) in Hlev.
    pose proof (wf_level s H id nd E). lia.
  - destruct Hok as [nd E]. rewrite (rlevel_node s id nd E) in Hlev.
    destruct (zchildren s H Hk id nd E) as [hi [lo Ec]].
    destruct (zchild_ok s H id nd hi lo E Ec) as [Oh [Lh [Ol Ll]]].
    assert (Hnh : forall t, eref hi = RT t -> term_val s t <> Some 0%N).
    { destruct (reduced_zbdd s Hk _ (wf_reduced s H id nd E)) as [h [Hh1 Hh2]].
      rewrite Ec in Hh1. simpl in Hh1. inversion Hh1; subst h. exact Hh2. }
    destruct (IH (eref hi) Oh ltac:(lia) Hnh) as [A [T [EA [HT _]]]].
    destruct (fam_of_total s H Hk (eref lo) Ol) as [Bf EB].
    exists (node_fam (nlevel nd) A Bf), (nlevel nd :: T).
    rewrite (fam_of_node s H Hk id nd hi lo E Ec), EA, EB.
    split; [reflexivity|]. split.
    + apply in_node_fam. left. exists T. auto.
    + intros id' nd' Hx E'. inversion Hx; subst id'. rewrite E in E'. inversion E'; subst nd'.
      exists T. reflexivity.
Qed.

(** all members start at or below [L]  ==>  the root is at or below [L] *)
Lemma zden_level : forall s r P L, ZbddOK s -> ZDen s r P -> L <= nlevels s ->
  (forall S, P S -> incr_from L S) -> L <= rlevel s r.
Proof.
  intros s r P L B [O [F [E Hm]]] HL Hs. destruct r as [t|id]; [simpl; exact HL|].
  destruct O as [nd En].
  destruct (fam_nonempty s B _ (RN id) (ex_intro _ nd En) (le_n _)) as [F' [S [E' [HS Hh]]]];
    [intros t Hx; discriminate|].
  rewrite E in E'. inversion E'; subst F'.
  destruct (Hh id nd eq_refl En) as [T ->].
  apply Hm, Hs in HS. simpl in HS. rewrite (rlevel_node s id nd En). lia.
Qed.

(** ** Family identities used by the recursion *)

(** [sup L P]: every member of [P] is an increasing list starting strictly below level [L] *)
Definition sup (L : nat) (P : fpred) : Prop := forall S, P S -> incr_from (Datatypes.S L) S.

Lemma sup_nohead : forall L P T, sup L P -> P (L :: T) -> False.
Proof. intros L P T Hs HP. apply Hs in HP. simpl in HP. lia. Qed.

Lemma zden_sup : forall s r X L, ZbddOK s -> ZDen s r X -> L < rlevel s r -> sup L X.
Proof. intros s r X L B D Hl S HS. apply (zden_below s r X L S B D Hl HS). Qed.

Lemma zmk2 : forall s1 s2 L hi lo RA RB,
  ZbddOK s1 -> ZbddOK s2 -> extends s1 s2 -> L < nlevels s2 ->
  ZDen s1 hi RA -> ZDen s2 lo RB -> sup L RA -> sup L RB ->
  exists s3 h, zmk_node s2 L hi lo = (s3, h) /\
    ZbddOK s3 /\ extends s2 s3 /\ ZDen s3 h (node_pred L RA RB).
Proof.
  intros s1 s2 L hi lo RA RB B1 B2 X2 HL D1 D2 SA SB.
  destruct (zmk_node s2 L hi lo) as [s3 h] eqn:Em.
  pose proof (zden_extends s1 s2 hi _ B1 X2 D1) as D1'.
  assert (Lh2 : L < rlevel s2 hi) by (apply (zden_level s2 hi _ (S L) B2 D1'); [lia | exact SA]).
  assert (Ll2 : L < rlevel s2 lo) by (apply (zden_level s2 lo _ (S L) B2 D2); [lia | exact SB]).
  destruct (zmk_node_ok s2 _ hi lo _ _ s3 h B2 HL D1' D2 Lh2 Ll2 Em) as (B3 & X3 & D3 & _).
  exists s3, h. auto.
Qed.

(** the three binary operators on predicates *)
Definition pbin (o : zop) (P Q : fpred) : fpred :=
  match o with
  | ZUnion => fun S => P S \/ Q S
  | ZIntsec => fun S => P S /\ Q S
  | ZDiff => fun S => P S /\ ~ Q S
  end.

Lemma pbin_ext : forall o P P' Q Q', peq P P' -> peq Q Q' -> peq (pbin o P Q) (pbin o P' Q').
Proof.
  intros o P P' Q Q' HP HQ S. destruct o; simpl; rewrite (HP S), (HQ S); reflexivity.
Qed.

Lemma pbin_comm : forall o P Q, zcommutes o = true -> peq (pbin o P Q) (pbin o Q P).
Proof. intros [] P Q Hc S; simpl in *; try discriminate; tauto. Qed.

Lemma pbin_sup : forall o L P Q, sup L P -> sup L Q -> sup L (pbin o P Q).
Proof. intros [] L P Q HP HQ S; simpl; intros Hx; [destruct Hx; auto | apply HP, Hx | apply HP, Hx]. Qed.

Lemma node_pred_ext : forall L PA PA' PB PB', peq PA PA' -> peq PB PB' ->
  peq (node_pred L PA PB) (node_pred L PA' PB').
Proof.
  intros L PA PA' PB PB' HA HB S. unfold node_pred. rewrite (HB S). split.
  - intros [[T [E HT]]|Hb]; [left; exists T; split; [exact E | apply HA; exact HT] | right; exact Hb].
  - intros [[T [E HT]]|Hb]; [left; exists T; split; [exact E | apply HA; exact HT] | right; exact Hb].
Qed.

Lemma node_pred_inj : forall L PA PB QA QB, sup L PB -> sup L QB ->
  peq (node_pred L PA PB) (node_pred L QA QB) -> peq PA QA /\ peq PB QB.
Proof.
  assert (Hx : forall L PA PB QA QB, sup L PB -> sup L QB ->
            (forall S, node_pred L PA PB S -> node_pred L QA QB S) ->
            (forall T, PA T -> QA T) /\ (forall S, PB S -> QB S)).
  { intros L PA PB QA QB SP SQ Hs. split.
    - intros T HT. destruct (Hs (L :: T)) as [[T' [E HT']]|HB];
        [left; eauto | inversion E; subst; exact HT' | destruct (sup_nohead L QB T SQ HB)].
    - intros S HS. destruct (Hs S (or_intror HS)) as [[T [-> _]]|HB];
        [destruct (sup_nohead L PB T SP HS) | exact HB]. }
  intros L PA PB QA QB SP SQ HN.
  destruct (Hx L PA PB QA QB SP SQ (fun S => proj1 (HN S))) as [A1 B1].
  destruct (Hx L QA QB PA PB SQ SP (fun S => proj2 (HN S))) as [A2 B2].
  split; intros X; split; auto.
Qed.

Lemma pbin_node_node : forall o L PA PB QA QB, sup L PB -> sup L QB ->
  peq (node_pred L (pbin o PA QA) (pbin o PB QB))
      (pbin o (node_pred L PA PB) (node_pred L QA QB)).
Proof.
  intros o L PA PB QA QB SP SQ S. unfold node_pred.
  assert (N1 : forall T, ~ PB (L :: T)) by (intros T Hx; apply (sup_nohead L PB T SP Hx)).
  assert (N2 : forall T, ~ QB (L :: T)) by (intros T Hx; apply (sup_nohead L QB T SQ Hx)).
  clear SP SQ.
  destruct o; simpl; split.
  - intros [[T [E [Ha|Ha]]]|[Hb|Hb]]; firstorder.
  - intros [[[T [E Ha]]|Hb]|[[T [E Ha]]|Hb]]; firstorder.
  - intros [[T [E [Ha Ha']]]|[Hb Hb']]; firstorder.
  - intros [[[T [E Ha]]|Hb] [[T' [E' Ha']]|Hb']].
    + left. exists T. subst S. inversion E'; subst T'. auto.
    + subst S. destruct (N2 T Hb').
    + subst S. destruct (N1 T' Hb).
    + right. auto.
  - intros [[T [E [Ha Ha']]]|[Hb Hb']].
    + split; [left; eauto|]. intros [[T' [E' Hq]]|Hq].
      * subst S. inversion E'; subst T'. auto.
      * subst S. apply (N2 T Hq).
    + split; [right; exact Hb|]. intros [[T' [E' Hq]]|Hq]; [|auto].
      subst S. apply (N1 T' Hb).
  - intros [[[T [E Ha]]|Hb] Hn].
    + left. exists T. split; [exact E|]. split; [exact Ha|]. intros Hq. apply Hn. left. eauto.
    + right. split; [exact Hb|]. intros Hq. apply Hn. right. exact Hq.
Qed.

Lemma pbin_node_below : forall o L PA PB Q, sup L PB -> sup L Q ->
  peq (pbin o (node_pred L PA PB) Q)
      (match o with
       | ZUnion | ZDiff => node_pred L PA (pbin o PB Q)
       | ZIntsec => pbin o PB Q
       end).
Proof.
  intros o L PA PB Q SP SQ S. unfold node_pred.
  assert (N2 : forall T, ~ Q (L :: T)) by (intros T Hx; apply (sup_nohead L Q T SQ Hx)).
  clear SP SQ.
  destruct o; simpl; split.
  - intros [[[T [E Ha]]|Hb]|Hq]; firstorder.
  - intros [[T [E Ha]]|[Hb|Hq]]; firstorder.
  - intros [[[T [E Ha]]|Hb] Hq]; [subst S; destruct (N2 T Hq) | auto].
  - intros [Hb Hq]. auto.
  - intros [[[T [E Ha]]|Hb] Hn]; firstorder.
  - intros [[T [E Ha]]|[Hb Hn]]; [|auto].
    split; [left; eauto|]. intros Hq. subst S. apply (N2 T Hq).
Qed.

Lemma pbin_below_node : forall o L P QA QB, sup L P -> sup L QB ->
  peq (pbin o P (node_pred L QA QB))
      (match o with
       | ZUnion => node_pred L QA (pbin o P QB)
       | ZIntsec | ZDiff => pbin o P QB
       end).
Proof.
  intros o L P QA QB SP SQ S. unfold node_pred.
  assert (N1 : forall T, ~ P (L :: T)) by (intros T Hx; apply (sup_nohead L P T SP Hx)).
  clear SP SQ.
  destruct o; simpl; split.
  - intros [Hp|[[T [E Ha]]|Hb]]; firstorder.
  - intros [[T [E Ha]]|[Hp|Hb]]; firstorder.
  - intros [Hp [[T [E Ha]]|Hb]]; [subst S; destruct (N1 T Hp) | auto].
  - intros [Hp Hb]. auto.
  - intros [Hp Hn]. split; [exact Hp|]. intros Hb. apply Hn. right. exact Hb.
  - intros [Hp Hn]. split; [exact Hp|]. intros [[T [E Ha]]|Hb]; [|auto].
    subst S. apply (N1 T Hp).
Qed.

(** the three unary operators on predicates, as documented ([l] = level of the variable) *)
Definition psub (o : zsub) (l : nat) (P : fpred) : fpred :=
  match o with
  | ZSubset0 => fun S => P S /\ ~ In l S
  | ZSubset1 => fun S => exists S0, P S0 /\ In l S0 /\ S = sremove l S0
  | ZChange => fun S => (exists S0, P S0 /\ ~ In l S0 /\ S = sinsert l S0) \/
                        (exists S0, P S0 /\ In l S0 /\ S = sremove l S0)
  end.

Lemma psub_ext : forall o l P P', peq P P' -> peq (psub o l P) (psub o l P').
Proof.
  intros o l P P' HP S. destruct o; simpl.
  - rewrite (HP S). reflexivity.
  - split; intros [S0 [A R]]; exists S0; (split; [apply HP; exact A | exact R]).
  - split; (intros [[S0 [A R]]|[S0 [A R]]]; [left | right]; exists S0; (split; [apply HP; exact A | exact R])).
Qed.

(** ** Views of references *)

Lemma zget_total : forall s r, ref_ok s r -> exists v, zget s r = Some v.
Proof.
  intros s [t|id]; simpl; [intros [v E] | intros [nd E]]; rewrite E; eauto.
Qed.

Lemma zop_code_inj : forall o o', zop_code o = zop_code o' -> o = o'.
Proof. intros [] [] E; simpl in E; try discriminate; reflexivity. Qed.

Lemma zsub_code_inj : forall o o', zsub_code o = zsub_code o' -> o = o'.
Proof. intros [] [] E; simpl in E; try discriminate; reflexivity. Qed.

(** everything the recursion needs to know about an inner operand *)
Lemma znode_facts : forall s id nd P, ZbddOK s -> ZDen s (RN id) P -> find_node s id = Some nd ->
  nstored nd = nlevel nd /\ nlevel nd < nlevels s /\ rlevel s (RN id) = nlevel nd /\
  exists hi lo PA PB, nchildren nd = [hi; lo] /\
    ZDen s (eref hi) PA /\ ZDen s (eref lo) PB /\
    nlevel nd < rlevel s (eref hi) /\ nlevel nd < rlevel s (eref lo) /\
    peq P (node_pred (nlevel nd) PA PB) /\ sup (nlevel nd) PA /\ sup (nlevel nd) PB.
Proof.
  intros s id nd P B D E. pose proof (zo_wf s B) as H.
  split; [apply (wf_stored s H id nd E)|]. split; [apply (wf_level s H id nd E)|].
  split; [apply (rlevel_node s id nd E)|].
  destruct (zden_node_inv s id nd P B D E) as (hi & lo & PA & PB & Ec & DA & DB & Lh & Ll & Hp).
  exists hi, lo, PA, PB. repeat (split; [assumption|]). split.
  - apply (zden_sup s (eref hi) PA _ B DA Lh).
  - apply (zden_sup s (eref lo) PB _ B DB Ll).
Qed.

(** the three-way level comparison of the code, with [None] = [LevelNo::MAX] for terminals *)
Lemma lcmp_cases : forall s f g vf vg, ZbddOK s -> zget s f = Some vf -> zget s g = Some vg ->
  match lcmp (vlevel vf) (vlevel vg) with
  | Lt => exists id nd, f = RN id /\ find_node s id = Some nd /\ vf = ZI nd /\
                        nlevel nd < rlevel s g
  | Gt => exists id nd, g = RN id /\ find_node s id = Some nd /\ vg = ZI nd /\
                        nlevel nd < rlevel s f
  | Eq => (exists idf ndf idg ndg, f = RN idf /\ g = RN idg /\
             find_node s idf = Some ndf /\ find_node s idg = Some ndg /\
             vf = ZI ndf /\ vg = ZI ndg /\ nlevel ndf = nlevel ndg) \/
          (exists tf tg, f = RT tf /\ g = RT tg)
  end.
Proof.
  intros s f g vf vg B Ef Eg. pose proof (zo_wf s B) as H.
  destruct f as [tf|idf], g as [tg|idg]; simpl in Ef, Eg.
  - destruct (term_val s tf); [|discriminate]. destruct (term_val s tg); [|discriminate].
    inversion Ef; inversion Eg; subst. simpl. right. eauto.
  - destruct (term_val s tf); [|discriminate].
    destruct (find_node s idg) as [ndg|] eqn:Eng; [|discriminate].
    inversion Ef; inversion Eg; subst. simpl. exists idg, ndg.
    repeat split; auto. apply (wf_level s H idg ndg Eng).
  - destruct (find_node s idf) as [ndf|] eqn:Enf; [|discriminate].
    destruct (term_val s tg); [|discriminate].
    inversion Ef; inversion Eg; subst. simpl. exists idf, ndf.
    repeat split; auto. apply (wf_level s H idf ndf Enf).
  - destruct (find_node s idf) as [ndf|] eqn:Enf; [|discriminate].
    destruct (find_node s idg) as [ndg|] eqn:Eng; [|discriminate].
    inversion Ef; inversion Eg; subst. simpl.
    rewrite (wf_stored s H idf ndf Enf), (wf_stored s H idg ndg Eng).
    destruct (Nat.compare_spec (nlevel ndf) (nlevel ndg)) as [Hc|Hc|Hc].
    + left. exists idf, ndf, idg, ndg. repeat split; auto.
    + exists idf, ndf. repeat split; auto. rewrite Eng. exact Hc.
    + exists idg, ndg. repeat split; auto. rewrite Enf. exact Hc.
Qed.

(** ** The terminal cases *)

Lemma ref_eqb_false : forall a b, ref_eqb a b = false -> a <> b.
Proof. intros a b E Hab. apply ref_eqb_eq in Hab. congruence. Qed.

(** a terminal reference that is not the Empty terminal is the Base terminal *)
Lemma not_empty_base : forall s te t, ZbddOK s -> term_val s te = Some 0%N -> ref_ok s (RT t) ->
  RT t <> RT te -> term_val s t = Some 1%N.
Proof.
  intros s te t B Ee O Hne. destruct (zterm_cases s t B O) as [E|E]; [|exact E].
  exfalso. apply Hne. f_equal. apply (term_val_inj s t te 0%N (zo_wf s B) E Ee).
Qed.

Lemma zterminal_ok : forall s op f g P Q, ZbddOK s -> ZDen s f P -> ZDen s g Q ->
  match zterminal s op f g with
  | ZTFail => False
  | ZTDone r => ZDen s r (pbin op P Q)
  | ZTGo => f <> g /\ (forall t, f = RT t -> term_val s t = Some 1%N) /\
            (forall t, g = RT t -> term_val s t = Some 1%N)
  end.
Proof.
  intros s op f g P Q B DF DG.
  destruct (zempty_spec s B) as [te [Ee Et]].
  pose proof (zden_empty s te B Et) as DE.
  assert (Hgo : f <> g -> f <> RT te -> g <> RT te ->
          f <> g /\ (forall t, f = RT t -> term_val s t = Some 1%N) /\
          (forall t, g = RT t -> term_val s t = Some 1%N)).
  { intros A1 A2 A3. split; [exact A1|]. split; intros t ->.
    - apply (not_empty_base s te t B Et (zden_ok _ _ _ DF) A2).
    - apply (not_empty_base s te t B Et (zden_ok _ _ _ DG) A3). }
  assert (Hfg : f = g -> peq P Q) by (intros ->; apply (zden_unique s g P Q DF DG)).
  assert (Hfe : f = RT te -> peq P pempty) by (intros ->; apply (zden_unique s _ P pempty DF DE)).
  assert (Hge : g = RT te -> peq Q pempty) by (intros ->; apply (zden_unique s _ Q pempty DG DE)).
  unfold zterminal. destruct op; rewrite ?Ee.
  - (* union *)
    destruct (ref_eqb f g) eqn:E1; simpl.
    + apply ref_eqb_eq in E1. apply (zden_ext s f P _ DF). intros S. simpl. rewrite (Hfg E1 S). tauto.
    + destruct (ref_eqb g (RT te)) eqn:E2.
      * apply ref_eqb_eq in E2. apply (zden_ext s f P _ DF). intros S. simpl. rewrite (Hge E2 S).
        unfold pempty. tauto.
      * destruct (ref_eqb f (RT te)) eqn:E3.
        -- apply ref_eqb_eq in E3. apply (zden_ext s g Q _ DG). intros S. simpl. rewrite (Hfe E3 S).
           unfold pempty. tauto.
        -- apply Hgo; apply ref_eqb_false; assumption.
  - (* intsec *)
    destruct (ref_eqb f g) eqn:E1.
    + apply ref_eqb_eq in E1. apply (zden_ext s f P _ DF). intros S. simpl. rewrite (Hfg E1 S). tauto.
    + destruct (ref_eqb f (RT te)) eqn:E2; simpl.
      * apply ref_eqb_eq in E2. apply (zden_ext s _ pempty _ DE). intros S. simpl. rewrite (Hfe E2 S).
        unfold pempty. tauto.
      * destruct (ref_eqb g (RT te)) eqn:E3.
        -- apply ref_eqb_eq in E3. apply (zden_ext s _ pempty _ DE). intros S. simpl. rewrite (Hge E3 S).
           unfold pempty. tauto.
        -- apply Hgo; apply ref_eqb_false; assumption.
  - (* diff *)
    destruct (ref_eqb f g) eqn:E1; simpl.
    + apply ref_eqb_eq in E1. apply (zden_ext s _ pempty _ DE). intros S. simpl. rewrite (Hfg E1 S).
      unfold pempty. tauto.
    + destruct (ref_eqb f (RT te)) eqn:E2.
      * apply ref_eqb_eq in E2. apply (zden_ext s _ pempty _ DE). intros S. simpl. rewrite (Hfe E2 S).
        unfold pempty. tauto.
      * destruct (ref_eqb g (RT te)) eqn:E3.
        -- apply ref_eqb_eq in E3. apply (zden_ext s f P _ DF). intros S. simpl. rewrite (Hge E3 S).
           unfold pempty. tauto.
        -- apply Hgo; apply ref_eqb_false; assumption.
Qed.

(** ** The cache *)

Section ZCacheSec.
Variable gt : ref -> ref -> bool.
Variable C : Type.
Variable cget : C -> N -> list ref -> list nat -> option ref.
Variable cadd : C -> N -> list ref -> list nat -> ref -> C.

(** the only thing assumed about the cache: what it serves after an insertion
    is the inserted entry or something it served before *)
Definition zlossy : Prop :=
  forall c k a m r k' a' m' r', cget (cadd c k a m r) k' a' m' = Some r' ->
    (k' = k /\ a' = a /\ m' = m /\ r' = r) \/ cget c k' a' m' = Some r'.

Hypothesis Hlossy : zlossy.

(** an entry is correct in table [s] (for the variable order of [s]: the
    subset entries are keyed by variable number) *)
Definition zentry_ok (s : snap) (code : N) (args : list ref) (nums : list nat) (r : ref) : Prop :=
  match args, nums with
  | [f; g], [] => forall o, code = zop_code o ->
      exists P Q, ZDen s f P /\ ZDen s g Q /\ ZDen s r (pbin o P Q)
  | [f], [var] => forall o, code = zsub_code o ->
      exists P vl, nth_error (s_v2l s) var = Some vl /\ ZDen s f P /\ ZDen s r (psub o vl P)
  | _, _ => True
  end.

Definition ZCacheOK (s : snap) (c : C) : Prop :=
  forall code args nums r, cget c code args nums = Some r -> zentry_ok s code args nums r.

Lemma zentry_ok_extends : forall s s' code args nums r, ZbddOK s -> extends s s' ->
  zentry_ok s code args nums r -> zentry_ok s' code args nums r.
Proof.
  intros s s' code args nums r B X. unfold zentry_ok.
  destruct args as [|f [|g [|x rest]]]; auto.
  - destruct nums as [|var [|y rest]]; auto.
    intros Hx o Hc. destruct (Hx o Hc) as [P [vl [Ev [A D]]]]. exists P, vl.
    rewrite (ext_v2l _ _ X). split; [exact Ev|]. split; eapply zden_extends; eauto.
  - destruct nums as [|var rest]; auto.
    intros Hx o Hc. destruct (Hx o Hc) as [P [Q [A [A' D]]]]. exists P, Q.
    repeat split; eapply zden_extends; eauto.
Qed.

Lemma zcacheok_extends : forall s s' c, ZbddOK s -> extends s s' -> ZCacheOK s c -> ZCacheOK s' c.
Proof. intros s s' c B X O code args nums r E. eapply zentry_ok_extends; eauto. Qed.

Lemma zcacheok_add : forall s c code args nums r, ZCacheOK s c -> zentry_ok s code args nums r ->
  ZCacheOK s (cadd c code args nums r).
Proof.
  intros s c code args nums r O Hn code' args' nums' r' E.
  destruct (Hlossy _ _ _ _ _ _ _ _ _ E) as [[-> [-> [-> ->]]]|E']; [exact Hn | apply (O _ _ _ _ E')].
Qed.

Definition zresult_ok (s : snap) (res : option (snap * C * ref)) (R : fpred) : Prop :=
  exists s' c' r, res = Some (s', c', r) /\
    ZbddOK s' /\ extends s s' /\ ZCacheOK s' c' /\ ZDen s' r R.

Lemma zresult_ext : forall s res R R', peq R R' -> zresult_ok s res R -> zresult_ok s res R'.
Proof.
  intros s res R R' Hp (s' & c' & r & E & B & X & O & D).
  exists s', c', r. repeat (split; [assumption|]). apply (zden_ext s' r R R' D Hp).
Qed.

Lemma zresult_here : forall s c r R, ZbddOK s -> ZCacheOK s c -> ZDen s r R ->
  zresult_ok s (Some (s, c, r)) R.
Proof.
  intros s c r R B O D. exists s, c, r. split; [reflexivity|]. split; [exact B|].
  split; [apply extends_refl|]. split; [exact O | exact D].
Qed.

(** storing the result of a binary operator in the cache *)
Lemma zfinish : forall s res R op f g P Q,
  ZbddOK s -> zresult_ok s res R -> ZDen s f P -> ZDen s g Q -> peq R (pbin op P Q) ->
  zresult_ok s
    (match res with
     | None => None
     | Some (s', c', h) => Some (s', cadd c' (zop_code op) [f; g] [] h, h)
     end) R.
Proof.
  intros s res R op f g P Q B (s' & c' & h & E & B' & X & O & D) DF DG Hp. subst res.
  exists s', (cadd c' (zop_code op) [f; g] [] h), h.
  split; [reflexivity|]. split; [exact B'|]. split; [exact X|]. split; [|exact D].
  apply zcacheok_add; [exact O|]. simpl. intros o Ho. apply zop_code_inj in Ho. subst o.
  exists P, Q. split; [apply (zden_extends s s' f P B X DF)|].
  split; [apply (zden_extends s s' g Q B X DG)|]. apply (zden_ext s' h R _ D Hp).
Qed.

(** ** union, intersection, difference *)

Lemma zapply_S : forall n s c op f g,
  zapply gt C cget cadd (S n) s c op f g =
    match zterminal s op f g with
    | ZTFail => None
    | ZTDone r => Some (s, c, r)
    | ZTGo =>
      let '(f, g) := if zcommutes op && gt f g then (g, f) else (f, g) in
      match cget c (zop_code op) [f; g] [] with
      | Some h => Some (s, c, h)
      | None =>
        match zget s f, zget s g with
        | Some fnode, Some gnode =>
          let res :=
            match lcmp (vlevel fnode) (vlevel gnode) with
            | Lt =>
              match zkids fnode, vlevel fnode with
              | Some (fhi, flo), Some flevel =>
                match op with
                | ZUnion | ZDiff =>
                  match zapply gt C cget cadd n s c op flo g with
                  | None => None
                  | Some (s1, c1, lo) =>
                    let '(s2, h) := zmk_node s1 flevel fhi lo in Some (s2, c1, h)
                  end
                | ZIntsec => zapply gt C cget cadd n s c op flo g
                end
              | _, _ => None
              end
            | Eq =>
              match zkids fnode, zkids gnode, vlevel fnode with
              | Some (fhi, flo), Some (ghi, glo), Some flevel =>
                match zapply gt C cget cadd n s c op fhi ghi with
                | None => None
                | Some (s1, c1, hi) =>
                  match zapply gt C cget cadd n s1 c1 op flo glo with
                  | None => None
                  | Some (s2, c2, lo) =>
                    let '(s3, h) := zmk_node s2 flevel hi lo in Some (s3, c2, h)
                  end
                end
              | _, _, _ => None
              end
            | Gt =>
              match zkids gnode, vlevel gnode with
              | Some (ghi, glo), Some glevel =>
                match op with
                | ZUnion =>
                  match zapply gt C cget cadd n s c op f glo with
                  | None => None
                  | Some (s1, c1, lo) =>
                    let '(s2, h) := zmk_node s1 glevel ghi lo in Some (s2, c1, h)
                  end
                | ZIntsec | ZDiff => zapply gt C cget cadd n s c op f glo
                end
              | _, _ => None
              end
            end in
          match res with
          | None => None
          | Some (s', c', h) => Some (s', cadd c' (zop_code op) [f; g] [] h, h)
          end
        | _, _ => None
        end
      end
    end.
Proof. reflexivity. Qed.

End ZCacheSec.
