(** * The Boolean interface of the ZBDD kind, part 5: restrict (C04, ZBDD)

    Family-level correctness of [restrict] / [restrict_base] (model: DD/ZbddBool.v):

    - [prestr n M lvl P]: the restriction of the family [P], seen from level
      [lvl], w.r.t. the literal map [M] (level |-> polarity): [S] is a member iff
      the set obtained from [S] by overriding the literal levels is a member of
      [P] ([ovl]); [prestr_node]: how it decomposes at level [lvl];
    - [ZCube s M lvl vars]: the cube as the code walks it; inversion lemmas,
      determinism ([zcube_agree]), stability under table extension;
    - [zrestrict_base_ok], [zrestrict_ok]: for every ZbddOK table with its
      tautology chain, valid cache, cube [vars] and sufficient fuel the model
      returns an edge denoting [prestr n M lvl P]; table only extended,
      invariants kept.

    The Boolean reading (restrict = cofactor w.r.t. the cube) is in DD/ZbddRestrictTop.v. *)

From Coq Require Import List NArith PArith Bool Arith Lia FMapPositive.
From OxiVerif Require Import DD.Table DD.TableExtra DD.TableProofs DD.Sem DD.Build DD.BuildProofs
  DD.Apply DD.ApplyProofs DD.CanonZbdd DD.FamSpec DD.FamSpecProofs DD.ZbddOps DD.ZbddOpsProofs
  DD.ZbddSubsetProofs DD.ZbddSoundProofs DD.ZbddVars DD.ZbddVarsProofs DD.ZbddBool DD.ZbddBoolProofs
  DD.ZbddXorProofs.
Import ListNotations.

(** ** [true_levels], [cm], [ovl] *)

Lemma true_levels_nil : forall c cnt from,
  (forall l, from <= l < from + cnt -> c l <> 0) -> true_levels c from cnt = [].
Proof.
  induction cnt as [|k IH]; intros from Hc; simpl; [reflexivity|].
  destruct (Nat.eqb_spec (c from) 0) as [E|_]; [destruct (Hc from ltac:(lia) E)|].
  apply IH. intros l Hl. apply Hc. lia.
Qed.

Lemma true_levels_nil_inv : forall c cnt from l,
  true_levels c from cnt = [] -> from <= l < from + cnt -> c l <> 0.
Proof.
  intros c cnt from l E Hl Hc. pose proof (true_levels_in c cnt from l Hl Hc) as Hin.
  rewrite E in Hin. destruct Hin.
Qed.

Lemma smem_cons : forall x l T, smem x (l :: T) = Nat.eqb x l || smem x T.
Proof. reflexivity. Qed.

Lemma cm_cons_other : forall M l T x, x <> l -> cm M (l :: T) x = cm M T x.
Proof.
  intros M l T x Hne. unfold cm. destruct (M x) as [[|]|]; try reflexivity.
  rewrite smem_cons. destruct (Nat.eqb_spec x l); [contradiction | reflexivity].
Qed.

Lemma cm_lit : forall M S l b, M l = Some b -> cm M S l = if b then 0 else 1.
Proof. intros M S l b E. unfold cm. rewrite E. destruct b; reflexivity. Qed.

Lemma cm_free_in : forall M S l, M l = None -> In l S -> cm M S l = 0.
Proof.
  intros M S l E Hin. unfold cm. rewrite E. apply smem_spec in Hin. rewrite Hin. reflexivity.
Qed.

Lemma cm_free_notin : forall M S l, M l = None -> ~ In l S -> cm M S l = 1.
Proof.
  intros M S l E Hin. unfold cm. rewrite E. apply smem_false in Hin. rewrite Hin. reflexivity.
Qed.

(** an element above the window does not matter *)
Lemma ovl_cons_above : forall M l T from cnt, l < from -> ovl M (l :: T) from cnt = ovl M T from cnt.
Proof.
  intros M l T from cnt Hl. unfold ovl. apply true_levels_ext. intros x Hx.
  apply cm_cons_other. lia.
Qed.

(** neither does an element at a negative literal *)
Lemma ovl_cons_neg : forall M l T from cnt, M l = Some false -> ovl M (l :: T) from cnt = ovl M T from cnt.
Proof.
  intros M l T from cnt Hm. unfold ovl. apply true_levels_ext. intros x Hx.
  destruct (Nat.eq_dec x l) as [->|Hne]; [|apply cm_cons_other; exact Hne].
  rewrite !(cm_lit M _ l false Hm). reflexivity.
Qed.

Lemma ovl_incr : forall M S from cnt, incr_from from (ovl M S from cnt).
Proof. intros M S from cnt. apply true_levels_incr. Qed.

Lemma ovl_step : forall M S from k,
  ovl M S from (Datatypes.S k) =
    if Nat.eqb (cm M S from) 0 then from :: ovl M S (Datatypes.S from) k else ovl M S (Datatypes.S from) k.
Proof. reflexivity. Qed.

(** ** [prestr] *)

Lemma prestr_ext : forall n M lvl P P', peq P P' -> peq (prestr n M lvl P) (prestr n M lvl P').
Proof. intros n M lvl P P' HP S. unfold prestr. rewrite (HP _). reflexivity. Qed.

Lemma prestr_ext_M : forall n M M' lvl P, (forall l, lvl <= l < n -> M l = M' l) ->
  peq (prestr n M lvl P) (prestr n M' lvl P).
Proof.
  intros n M M' lvl P HM S. unfold prestr.
  assert (E : ovl M S lvl (n - lvl) = ovl M' S lvl (n - lvl)).
  { unfold ovl. apply true_levels_ext. intros l Hl. unfold cm. rewrite (HM l) by lia. reflexivity. }
  rewrite E. reflexivity.
Qed.

Lemma prestr_sup : forall n M lvl P, sup lvl (prestr n M (S lvl) P).
Proof. intros n M lvl P S [Hi _]. exact Hi. Qed.

Lemma prestr_empty : forall n M lvl, peq (prestr n M lvl pempty) pempty.
Proof. intros n M lvl S. unfold prestr, pempty. tauto. Qed.

(** the hi part and the lo part of a family at level [l] *)
Definition phi (l : nat) (P : fpred) : fpred := fun T => P (l :: T).
Definition plo (l : nat) (P : fpred) : fpred := fun S => P S /\ incr_from (Datatypes.S l) S.

Lemma phi_node : forall l PA PB, sup l PB -> peq (phi l (node_pred l PA PB)) PA.
Proof.
  intros l PA PB SB T. unfold phi, node_pred. split.
  - intros [[T' [E HA]]|HB]; [inversion E; subst; exact HA | destruct (sup_nohead l PB T SB HB)].
  - intros HA. left. eauto.
Qed.

Lemma plo_node : forall l PA PB, sup l PB -> peq (plo l (node_pred l PA PB)) PB.
Proof.
  intros l PA PB SB S. unfold plo, node_pred. split.
  - intros [[[T [-> _]]|HB] Hi]; [simpl in Hi; lia | exact HB].
  - intros HB. split; [right; exact HB | apply SB; exact HB].
Qed.

Lemma phi_below : forall l P, sup l P -> peq (phi l P) pempty.
Proof. intros l P SP T. unfold phi, pempty. split; [intros HP; apply (sup_nohead l P T SP HP) | intros []]. Qed.

Lemma plo_below : forall l P, sup l P -> peq (plo l P) P.
Proof. intros l P SP S. unfold plo. split; [intros [HP _]; exact HP | intros HP; split; [exact HP | apply SP; exact HP]]. Qed.

Lemma phi_ext : forall l P P', peq P P' -> peq (phi l P) (phi l P').
Proof. intros l P P' HP T. apply HP. Qed.

Lemma plo_ext : forall l P P', peq P P' -> peq (plo l P) (plo l P').
Proof. intros l P P' HP S. unfold plo. rewrite (HP S). reflexivity. Qed.

Lemma node_pred_empty_hi : forall L X, peq (node_pred L pempty X) X.
Proof. intros L X S. unfold node_pred, pempty. split; [intros [[T [_ []]]|HX]; exact HX | auto]. Qed.

(** the restriction decomposes at its top level according to the literal there *)
Lemma prestr_node : forall n M lvl P, lvl < n ->
  peq (prestr n M lvl P)
      (node_pred lvl
         (prestr n M (S lvl) (match M lvl with Some false => plo lvl P | _ => phi lvl P end))
         (prestr n M (S lvl) (match M lvl with Some true => phi lvl P | _ => plo lvl P end))).
Proof.
  intros n M lvl P Hl.
  apply (peq_trans _ _ _ (pdecomp lvl (prestr n M lvl P) (fun S HS => proj1 HS))).
  remember (n - S lvl) as k eqn:Ek. assert (En : n - lvl = S k) by lia.
  apply node_pred_ext.
  - intros T. unfold prestr at 1. rewrite En, ovl_step.
    rewrite (ovl_cons_above M lvl T (S lvl) k (Nat.lt_succ_diag_r lvl)).
    assert (Ec : cm M (lvl :: T) lvl = match M lvl with Some false => 1 | _ => 0 end).
    { unfold cm. destruct (M lvl) as [[|]|]; try reflexivity.
      rewrite smem_cons, Nat.eqb_refl. reflexivity. }
    rewrite Ec. unfold prestr. rewrite <- Ek.
    pose proof (ovl_incr M T (S lvl) k) as Hi.
    destruct (M lvl) as [[|]|]; simpl Nat.eqb; cbv iota; unfold phi, plo; simpl incr_from; split.
    1, 3, 5: intros [[_ HT] [Hb HP]]; inversion Hb; subst; auto.
    1, 3: intros [HT [Hb HP]]; split; [split; [lia | exact HT]|]; split; [constructor; assumption | exact HP].
    intros [HT [Hb [HP _]]]. split; [split; [lia | exact HT]|]. split; [constructor; assumption | exact HP].
  - intros S. unfold prestr at 1. rewrite En, ovl_step.
    pose proof (ovl_incr M S (Datatypes.S lvl) k) as Hi.
    unfold prestr. rewrite <- Ek.
    assert (Ec : incr_from (Datatypes.S lvl) S ->
              cm M S lvl = match M lvl with Some true => 0 | _ => 1 end).
    { intros HS. unfold cm. destruct (M lvl) as [[|]|]; try reflexivity.
      rewrite (proj2 (smem_false lvl S)); [reflexivity|].
      apply (incr_from_notin S (Datatypes.S lvl) lvl HS). lia. }
    split.
    + intros [[_ [Hb HP]] HS].
      rewrite (Ec HS) in HP. split; [exact HS|]. split; [exact Hb|].
      destruct (M lvl) as [[|]|]; simpl in HP; unfold phi, plo; auto.
    + intros [HS [Hb HP]].
      rewrite (Ec HS). split; [|exact HS].
      split; [apply (incr_from_weaken S (Datatypes.S lvl)); [lia | exact HS]|]. split; [exact Hb|].
      destruct (M lvl) as [[|]|]; simpl; unfold phi, plo in HP; tauto.
Qed.

(** levels with a negative literal on top: irrelevant for members that start below them ... *)
Lemma prestr_neg_skip : forall n M lvl L P, lvl <= L -> L <= n ->
  (forall l, lvl <= l < L -> M l = Some false) ->
  peq (fun S => prestr n M lvl P S /\ incr_from L S) (prestr n M L P).
Proof.
  intros n M lvl L P H1 H2 Hneg S. unfold prestr.
  assert (E : ovl M S lvl (n - lvl) = ovl M S L (n - L)).
  { unfold ovl. replace (n - lvl) with ((L - lvl) + (n - L)) by lia.
    rewrite true_levels_app. replace (lvl + (L - lvl)) with L by lia.
    rewrite (true_levels_nil (cm M S) (L - lvl) lvl); [reflexivity|].
    intros l Hl. rewrite (cm_lit M S l false (Hneg l ltac:(lia))). discriminate. }
  rewrite E. split.
  - intros [[_ [Hb HP]] Hi]. auto.
  - intros [Hi [Hb HP]]. split; [|exact Hi].
    split; [apply (incr_from_weaken S L); assumption | auto].
Qed.

(** ... and optional in every member *)
Lemma prestr_neg_optional : forall n M lvl P l T, lvl <= l < n -> M l = Some false ->
  incr_from (Datatypes.S l) T ->
  (prestr n M lvl P (l :: T) <-> prestr n M lvl P T).
Proof.
  intros n M lvl P l T Hl Hm HT. unfold prestr.
  rewrite (ovl_cons_neg M l T lvl (n - lvl) Hm). simpl incr_from. split.
  - intros [[_ Hi] [Hb HP]]. inversion Hb; subst.
    split; [apply (incr_from_weaken T (Datatypes.S l)); [lia | exact HT] | auto].
  - intros [Hi [Hb HP]]. split; [split; [lia | exact HT]|]. split; [constructor; [lia | exact Hb] | exact HP].
Qed.

(** a family closed under dropping optional top levels, with no member below them, is empty *)
Lemma wrap_empty : forall cnt lvl (R : fpred),
  (forall S, R S -> incr_from lvl S) ->
  (forall l T, lvl <= l < lvl + cnt -> incr_from (Datatypes.S l) T -> (R (l :: T) <-> R T)) ->
  (forall S, R S -> incr_from (lvl + cnt) S -> False) ->
  forall S, R S -> False.
Proof.
  induction cnt as [|k IH]; intros lvl R Hi Hopt Hno S HS.
  - apply (Hno S HS). rewrite Nat.add_0_r. apply Hi. exact HS.
  - apply (IH lvl R Hi) with (S := S); auto.
    + intros l T Hl HT. apply Hopt; [lia | exact HT].
    + intros S' HS' Hi'. destruct S' as [|x T].
      * apply (Hno [] HS'). exact I.
      * simpl in Hi'. destruct Hi' as [Hx HT]. destruct (Nat.eq_dec x (lvl + k)) as [->|Hne].
        -- apply (Hno T); [apply (Hopt (lvl + k) T); [lia | exact HT | exact HS']|].
           replace (lvl + Datatypes.S k) with (Datatypes.S (lvl + k)) by lia. exact HT.
        -- apply (Hno (x :: T) HS'). simpl. split; [lia | exact HT].
Qed.

(** ** Cubes *)

Lemma zcube_ref_ok : forall s M lvl vars, ZCube s M lvl vars -> ref_ok s vars.
Proof. intros s M lvl vars Hc. destruct Hc; simpl; eauto. Qed.

Lemma zcube_level : forall s M lvl vars, WF s -> ZCube s M lvl vars -> lvl <= nlevels s -> lvl <= rlevel s vars.
Proof.
  intros s M lvl vars H Hc Hl. destruct Hc; simpl.
  - exact Hl.
  - rewrite H0. assumption.
  - rewrite H0. assumption.
Qed.

(** the cube skips level [lvl]: negative literal *)
Lemma zcube_skip : forall s M lvl vars, ZCube s M lvl vars -> lvl < nlevels s -> lvl < rlevel s vars ->
  M lvl = Some false /\ ZCube s M (S lvl) vars.
Proof.
  intros s M lvl vars Hc Hl Hr. destruct Hc as [lvl t Et Hneg | lvl id nd hi En Ec Hle Hneg Hm Hc' | lvl id nd hi lo En Ec Hne He Hle Hneg Hm Hc'].
  - split; [apply Hneg; lia|]. apply ZC_term; [exact Et|]. intros l Hl'. apply Hneg. lia.
  - simpl in Hr. rewrite En in Hr. split; [apply Hneg; lia|].
    apply (ZC_dc s M (S lvl) id nd hi En Ec); auto. intros l Hl'. apply Hneg. lia.
  - simpl in Hr. rewrite En in Hr. split; [apply Hneg; lia|].
    apply (ZC_pos s M (S lvl) id nd hi lo En Ec); auto. intros l Hl'. apply Hneg. lia.
Qed.

(** the cube has a node at level [lvl]: no literal (children equal) or a positive one *)
Lemma zcube_at : forall s M lvl id nd, ZCube s M lvl (RN id) -> find_node s id = Some nd -> nlevel nd = lvl ->
  exists hi lo, nchildren nd = [E hi; E lo] /\ ZCube s M (S lvl) hi /\
    ((hi = lo /\ M lvl = None) \/ (hi <> lo /\ is_empty_b s lo = true /\ M lvl = Some true)).
Proof.
  intros s M lvl id nd Hc En El. inversion Hc as [| lvl' id' nd' hi En' Ec Hle Hneg Hm Hc' | lvl' id' nd' hi lo En' Ec Hne He Hle Hneg Hm Hc']; subst.
  - rewrite En in En'. inversion En'; subst nd'. exists hi, hi. split; [exact Ec|]. split; [exact Hc'|]. left. auto.
  - rewrite En in En'. inversion En'; subst nd'. exists hi, lo. split; [exact Ec|]. split; [exact Hc'|]. right. auto.
Qed.

(** only the literals from [lvl] on matter *)
Lemma zcube_ext : forall s M M' lvl vars, (forall l, lvl <= l -> M l = M' l) ->
  ZCube s M lvl vars -> ZCube s M' lvl vars.
Proof.
  intros s M M' lvl vars HM Hc. induction Hc as [lvl t Et Hneg | lvl id nd hi En Ec Hle Hneg Hm Hc' IH | lvl id nd hi lo En Ec Hne He Hle Hneg Hm Hc' IH].
  - apply ZC_term; [exact Et|]. intros l Hl. rewrite <- (HM l) by lia. apply Hneg. exact Hl.
  - apply (ZC_dc s M' lvl id nd hi En Ec Hle).
    + intros l Hl. rewrite <- (HM l) by lia. apply Hneg. exact Hl.
    + rewrite <- (HM _ Hle). exact Hm.
    + apply IH. intros l Hl. apply HM. lia.
  - apply (ZC_pos s M' lvl id nd hi lo En Ec Hne He Hle).
    + intros l Hl. rewrite <- (HM l) by lia. apply Hneg. exact Hl.
    + rewrite <- (HM _ Hle). exact Hm.
    + apply IH. intros l Hl. apply HM. lia.
Qed.

(** the shape determines the literals *)
Lemma zcube_agree : forall s M M' lvl vars, WF s -> ZCube s M lvl vars -> ZCube s M' lvl vars ->
  forall l, lvl <= l < nlevels s -> M l = M' l.
Proof.
  intros s M M' lvl vars H Hc. revert M'.
  induction Hc as [lvl t Et Hneg | lvl id nd hi En Ec Hle Hneg Hm Hc' IH | lvl id nd hi lo En Ec Hne He Hle Hneg Hm Hc' IH];
    intros M' Hc2 l Hl.
  - inversion Hc2; subst. rewrite (Hneg l Hl). symmetry. auto.
  - inversion Hc2 as [| lvl' id' nd' hi2 En2 Ec2 Hle2 Hneg2 Hm2 Hc2' | lvl' id' nd' hi2 lo2 En2 Ec2 Hne2 He2 Hle2 Hneg2 Hm2 Hc2']; subst;
      rewrite En in En2; inversion En2; subst nd'; rewrite Ec in Ec2; inversion Ec2; subst.
    + destruct (lt_eq_lt_dec l (nlevel nd)) as [[Hlt|Heq]|Hgt].
      * rewrite (Hneg l) by lia. symmetry. apply Hneg2. lia.
      * subst l. congruence.
      * apply (IH M' Hc2'). lia.
    + contradiction.
  - inversion Hc2 as [| lvl' id' nd' hi2 En2 Ec2 Hle2 Hneg2 Hm2 Hc2' | lvl' id' nd' hi2 lo2 En2 Ec2 Hne2 He2 Hle2 Hneg2 Hm2 Hc2']; subst;
      rewrite En in En2; inversion En2; subst nd'; rewrite Ec in Ec2; inversion Ec2; subst.
    + contradiction.
    + destruct (lt_eq_lt_dec l (nlevel nd)) as [[Hlt|Heq]|Hgt].
      * rewrite (Hneg l) by lia. symmetry. apply Hneg2. lia.
      * subst l. congruence.
      * apply (IH M' Hc2'). lia.
Qed.

(** what the code sees of the cube at level [lvl] *)
Lemma zcube_cases : forall s M lvl vars, ZbddOK s -> ZCube s M lvl vars -> lvl < nlevels s ->
  (exists vnode, zget s vars = Some vnode /\ lcmp (vlevel vnode) (Some lvl) <> Eq /\
     M lvl = Some false /\ ZCube s M (S lvl) vars) \/
  (exists vnode hi lo, zget s vars = Some vnode /\ lcmp (vlevel vnode) (Some lvl) = Eq /\
     zkids vnode = Some (hi, lo) /\ ZCube s M (S lvl) hi /\
     ((ref_eqb hi lo = true /\ M lvl = None) \/
      (ref_eqb hi lo = false /\ M lvl = Some true))).
Proof.
  intros s M lvl vars B Hc Hl. pose proof (zo_wf s B) as H.
  pose proof (zcube_level s M lvl vars H Hc ltac:(lia)) as Hge.
  destruct (zget_total s vars (zcube_ref_ok s M lvl vars Hc)) as [vnode Ev].
  destruct vars as [t|id].
  - left. exists vnode. split; [exact Ev|].
    simpl in Ev. destruct (term_val s t); [|discriminate]. inversion Ev; subst vnode. simpl.
    split; [discriminate|]. apply (zcube_skip s M lvl (RT t) Hc Hl). simpl. exact Hl.
  - simpl in Ev. destruct (find_node s id) as [nd|] eqn:En; [|discriminate]. inversion Ev; subst vnode.
    rewrite (rlevel_node s id nd En) in Hge.
    destruct (Nat.eq_dec (nlevel nd) lvl) as [Heq|Hne].
    + right. destruct (zcube_at s M lvl id nd Hc En Heq) as (hi & lo & Ec & Hc' & Hcase).
      exists (ZI nd), hi, lo. simpl zget. rewrite En. split; [reflexivity|].
      split; [simpl; rewrite (wf_stored s H id nd En), Heq; apply Nat.compare_refl|].
      split; [simpl; rewrite Ec; reflexivity|]. split; [exact Hc'|].
      destruct Hcase as [[-> Hm]|[Hne [_ Hm]]].
      * left. split; [apply ref_eqb_eq; reflexivity | exact Hm].
      * right. split; [|exact Hm]. destruct (ref_eqb hi lo) eqn:Er; [|reflexivity].
        apply ref_eqb_eq in Er. contradiction.
    + left. exists (ZI nd). simpl zget. rewrite En. split; [reflexivity|].
      split; [simpl; rewrite (wf_stored s H id nd En); intros Hx; apply Nat.compare_eq in Hx; contradiction|].
      apply (zcube_skip s M lvl (RN id) Hc Hl). rewrite (rlevel_node s id nd En). lia.
Qed.

(** ** [restrict_base] *)

Lemma prestr_base_neg : forall n M lvl, lvl <= n -> (forall l, lvl <= l < n -> M l = Some false) ->
  peq (prestr n M lvl pbase) (pall n lvl).
Proof.
  intros n M lvl Hl Hneg S. unfold prestr, pbase, pall. split; [tauto|].
  intros [Hi Hb]. split; [exact Hi|]. split; [exact Hb|].
  apply true_levels_nil. intros l Hl'. rewrite (cm_lit M S l false (Hneg l ltac:(lia))). discriminate.
Qed.

Lemma prestr_base_pos : forall n M lvl L, lvl <= L < n -> M L = Some true ->
  peq (prestr n M lvl pbase) pempty.
Proof.
  intros n M lvl L HL Hm S. unfold prestr, pbase, pempty. split; [|intros []].
  intros [_ [_ E]]. apply (true_levels_nil_inv _ _ _ L E ltac:(lia)).
  apply (cm_lit M S L true Hm).
Qed.

(** a level without literal: the restriction of Base has no member with that level *)
Lemma prestr_base_free : forall n M L, L < n -> M L = None ->
  peq (prestr n M L pbase) (prestr n M (S L) pbase).
Proof.
  intros n M L HL Hm. apply (peq_trans _ _ _ (prestr_node n M L pbase HL)). rewrite Hm.
  apply (peq_trans _ (node_pred L pempty (prestr n M (S L) pbase))).
  - apply node_pred_ext.
    + apply (peq_trans _ (prestr n M (S L) pempty)); [|apply prestr_empty].
      apply prestr_ext. intros T. unfold phi, pbase, pempty. split; [discriminate | intros []].
    + apply prestr_ext. intros S. unfold plo, pbase. split; [tauto|]. intros ->. split; [reflexivity | exact I].
  - apply node_pred_empty_hi.
Qed.

Theorem zrestrict_base_ok : forall fuel s vars lvl M,
  ZbddOK s -> ZChainOK s -> ZCube s M lvl vars -> lvl <= nlevels s -> nlevels s - lvl < fuel ->
  exists s' r, zrestrict_base fuel s vars lvl = Some (s', r) /\
    ZbddOK s' /\ extends s s' /\ ZDen s' r (prestr (nlevels s) M lvl pbase).
Proof.
  induction fuel as [|f IH]; intros s vars lvl M B Hch Hc Hl Hf; [lia|].
  pose proof (zo_wf s B) as H.
  destruct Hc as [lvl t Et Hneg | lvl id nd hi En Ec Hle Hneg Hm Hc' | lvl id nd hi lo En Ec Hne He Hle Hneg Hm Hc'].
  - (* Base: all remaining levels are negative literals *)
    simpl. rewrite Et. destruct (ztaut_total s lvl Hch) as [ta Eta]. rewrite Eta.
    exists s, ta. split; [reflexivity|]. split; [exact B|]. split; [apply extends_refl|].
    pose proof (ztaut_den s lvl ta B Eta) as D. rewrite Nat.min_l in D by exact Hl.
    apply (zden_ext s ta _ _ D). apply peq_sym. apply prestr_base_neg; assumption.
  - (* no literal at the node's level *)
    pose proof (wf_level s H id nd En) as HL.
    simpl. rewrite En, Ec. simpl eref. rewrite (proj2 (ref_eqb_eq hi hi) eq_refl). simpl negb. cbv iota.
    rewrite (wf_stored s H id nd En).
    destruct (IH s hi (S (nlevel nd)) M B Hch Hc' ltac:(lia) ltac:(lia))
      as (s1 & res & E1 & B1 & X1 & D1).
    rewrite E1.
    pose proof (ext_nlevels _ _ X1) as Hn1.
    set (R := prestr (nlevels s) M lvl pbase).
    assert (HR : peq (prestr (nlevels s) M (S (nlevel nd)) pbase) (fun S => R S /\ incr_from (nlevel nd) S)).
    { apply peq_sym. apply (peq_trans _ _ _ (prestr_neg_skip (nlevels s) M lvl (nlevel nd) pbase Hle ltac:(lia) Hneg)).
      apply prestr_base_free; assumption. }
    assert (Hopt : forall l T, lvl <= l < nlevel nd -> incr_from (Datatypes.S l) T -> (R (l :: T) <-> R T)).
    { intros l T Hl' HT. apply prestr_neg_optional; [lia | apply Hneg; exact Hl' | exact HT]. }
    destruct (Nat.ltb_spec lvl (nlevel nd)) as [Hlt|Hge]; simpl andb.
    + destruct (is_empty_b s1 res) eqn:Ee; simpl negb; cbv iota.
      * (* the rest is Empty: so is the whole restriction *)
        exists s1, res. split; [reflexivity|]. split; [exact B1|]. split; [exact X1|].
        destruct (is_empty_b_true s1 res Ee) as [te [-> Ete]].
        apply (zden_ext s1 _ pempty); [apply (zden_empty s1 te B1 Ete)|].
        pose proof (zden_unique s1 _ _ _ D1 (zden_empty s1 te B1 Ete)) as He0.
        intros S. unfold pempty. split; [intros []|]. intros HS.
        apply (wrap_empty (nlevel nd - lvl) lvl R) with (S := S); auto.
        -- intros S' [Hi _]. exact Hi.
        -- intros l T Hl' HT. apply Hopt; [lia | exact HT].
        -- intros S' HS' Hi'. replace (lvl + (nlevel nd - lvl)) with (nlevel nd) in Hi' by lia.
           apply (He0 S'). apply HR. auto.
      * (* don't-care nodes for the skipped levels *)
        destruct (zdc_wrap lvl (nlevel nd - lvl) s1 res) as [s' r] eqn:Ew.
        assert (Hex : exists S, R S /\ incr_from (lvl + (nlevel nd - lvl)) S).
        { replace (lvl + (nlevel nd - lvl)) with (nlevel nd) by lia.
          destruct (fam_nonempty s1 B1 _ res (zden_ok _ _ _ D1) (le_n _)) as [F [S [EF [HS _]]]].
          - intros t ->. apply is_empty_b_false. exact Ee.
          - destruct D1 as [_ [F' [EF' HF']]]. rewrite EF in EF'. inversion EF'; subst F'.
            exists S. apply HR. apply HF'. exact HS. }
        destruct (zdc_wrap_ok (nlevel nd - lvl) lvl s1 res R s' r B1) as (B' & X' & D'); auto.
        -- rewrite Hn1. lia.
        -- replace (lvl + (nlevel nd - lvl)) with (nlevel nd) by lia. apply (zden_ext s1 _ _ _ D1 HR).
        -- intros S [Hi _]. exact Hi.
        -- intros l T Hl' HT. apply Hopt; [lia | exact HT].
        -- exists s', r. split; [reflexivity|]. split; [exact B'|].
           split; [apply (extends_trans _ _ _ X1 X') | exact D'].
    + (* the node is at [lvl] itself *)
      assert (Heq : nlevel nd = lvl) by lia.
      exists s1, res. split; [reflexivity|]. split; [exact B1|]. split; [exact X1|].
      apply (zden_ext s1 _ _ _ D1). rewrite Heq. apply peq_sym. apply prestr_base_free; [lia | rewrite <- Heq; exact Hm].
  - (* a positive literal: Base has no member with that level *)
    pose proof (wf_level s H id nd En) as HL.
    simpl. rewrite En, Ec. simpl eref.
    destruct (ref_eqb hi lo) eqn:Er; [apply ref_eqb_eq in Er; contradiction|]. simpl negb. cbv iota.
    destruct (zempty_spec s B) as [te [Ee Ete]]. rewrite Ee.
    exists s, (RT te). split; [reflexivity|]. split; [exact B|]. split; [apply extends_refl|].
    apply (zden_ext s _ pempty); [apply (zden_empty s te B Ete)|].
    apply peq_sym. apply (prestr_base_pos (nlevels s) M lvl (nlevel nd)); [lia | exact Hm].
Qed.

(** ** [restrict] *)

Section ZRestrict.
Variable C : Type.
Variable cget : C -> N -> list ref -> list nat -> option ref.
Variable cadd : C -> N -> list ref -> list nat -> ref -> C.
Hypothesis Hlossy : zlossy C cget cadd.

Notation ZCacheOKB := (ZCacheOKB C cget).
Notation zresult_okB := (zresult_okB C cget).

(** [reduce1] on a recursive result *)
Lemma zstep_mk1B : forall s res R L,
  ZbddOK s -> zresult_okB s res R -> L < nlevels s -> sup L R ->
  zresult_okB s
    (match res with
     | None => None
     | Some (s1, c1, child) => let '(s2, r) := zmk_node1 s1 L child in Some (s2, c1, r)
     end) (node_pred L R R).
Proof.
  intros s res R L B (s1 & c1 & ch & -> & B1 & X1 & O1 & D1) HL SR. unfold zmk_node1.
  rewrite <- (ext_nlevels _ _ X1) in HL.
  destruct (zmk2 s1 s1 L ch ch R R B1 B1 (extends_refl s1) HL D1 D1 SR SR) as (s2 & r & -> & B2 & X2 & D2).
  exists s2, c1, r. split; [reflexivity|]. split; [exact B2|].
  split; [apply (extends_trans _ _ _ X1 X2)|]. split; [|exact D2].
  apply (zcacheokb_extends C cget s1 s2 c1 B1 X2 O1).
Qed.

Lemma zrestrict_S : forall n s c f vars level,
  zrestrict C cget cadd (S n) s c f vars level =
    match zget s f with
    | None => None
    | Some (ZT v) =>
      if N.eqb v 0 then Some (s, c, f)
      else
        match zrestrict_base (S n) s vars level with
        | Some (s1, r) => Some (s1, c, r)
        | None => None
        end
    | Some (ZI fnd) =>
      match zget s vars, nchildren fnd with
      | Some vnode, [fhi; flo] =>
        let flevel := nstored fnd in
        match lcmp (vlevel vnode) (Some level) with
        | Eq =>
          match zkids vnode with
          | None => None
          | Some (vhi, vlo) =>
            if negb (ref_eqb vhi vlo) then
              if negb (Nat.eqb flevel level) then
                match zempty s with Some e => Some (s, c, e) | None => None end
              else
                match zrestrict C cget cadd n s c (eref fhi) vhi (S level) with
                | None => None
                | Some (s1, c1, child) =>
                  let '(s2, r) := zmk_node1 s1 level child in Some (s2, c1, r)
                end
            else if negb (Nat.eqb flevel level) then zrestrict C cget cadd n s c f vhi (S level)
            else
              match cget c zcode_restrict [f; vars] [nlevels s] with
              | Some r => Some (s, c, r)
              | None =>
                match zrestrict C cget cadd n s c (eref fhi) vhi (S level) with
                | None => None
                | Some (s1, c1, hi) =>
                  match zrestrict C cget cadd n s1 c1 (eref flo) vhi (S level) with
                  | None => None
                  | Some (s2, c2, lo) =>
                    let '(s3, r) := zmk_node s2 level hi lo in
                    Some (s3, cadd c2 zcode_restrict [f; vars] [nlevels s] r, r)
                  end
                end
              end
          end
        | _ =>
          let sel := if Nat.eqb flevel level then eref flo else f in
          match zrestrict C cget cadd n s c sel vars (S level) with
          | None => None
          | Some (s1, c1, child) =>
            let '(s2, r) := zmk_node1 s1 level child in Some (s2, c1, r)
          end
        end
      | _, _ => None
      end
    end.
Proof. reflexivity. Qed.

Theorem zrestrict_ok : forall fuel s c f vars lvl P M,
  ZbddOK s -> ZChainOK s -> ZCacheOKB s c -> ZDen s f P -> ZCube s M lvl vars ->
  lvl <= rlevel s f -> nlevels s - lvl < fuel ->
  zresult_okB s (zrestrict C cget cadd fuel s c f vars lvl) (prestr (nlevels s) M lvl P).
Proof.
  induction fuel as [|n IH]; intros s c f vars lvl P M B Hch O DF Hc Hlf Hfuel; [lia|].
  rewrite zrestrict_S. pose proof (zo_wf s B) as H. pose proof (zo_kind s B) as Hk.
  destruct f as [t|idf].
  - (* terminal operand *)
    destruct (zden_ok _ _ _ DF) as [v Ev]. simpl zget. rewrite Ev.
    destruct (zo_codes s B t v Ev) as [-> | ->]; simpl N.eqb; cbv iota.
    + apply (zresultB_here C cget); auto. apply (zden_ext s _ pempty); [apply (zden_empty s t B Ev)|].
      apply peq_sym. apply (peq_trans _ (prestr (nlevels s) M lvl pempty)); [|apply prestr_empty].
      apply prestr_ext. apply (zden_unique s _ _ _ DF (zden_empty s t B Ev)).
    + simpl in Hlf.
      destruct (zrestrict_base_ok (S n) s vars lvl M B Hch Hc Hlf Hfuel) as (s1 & r & E1 & B1 & X1 & D1).
      rewrite E1. exists s1, c, r. split; [reflexivity|]. split; [exact B1|]. split; [exact X1|].
      split; [apply (zcacheokb_extends C cget s s1 c B X1 O)|].
      apply (zden_ext s1 _ _ _ D1). apply prestr_ext.
      apply (zden_unique s _ _ _ (zden_base s t B Ev) DF).
  - (* inner operand *)
    destruct (zden_ok _ _ _ DF) as [fnd Enf]. simpl zget. rewrite Enf.
    destruct (znode_facts s idf fnd P B DF Enf)
      as (Sf & Lf & Rf & fhi & flo & PA & PB & Ecf & DA & DB & LA & LB & HP & SA & SB).
    rewrite Rf in Hlf. rewrite Ecf, Sf.
    assert (Hl : lvl < nlevels s) by lia.
    pose proof (prestr_node (nlevels s) M lvl P Hl) as Hnode.
    (* the hi and lo part of P at level lvl *)
    assert (Hparts : (nlevel fnd = lvl /\ peq (phi lvl P) PA /\ peq (plo lvl P) PB) \/
                     (lvl < nlevel fnd /\ peq (phi lvl P) pempty /\ peq (plo lvl P) P)).
    { destruct (Nat.eq_dec (nlevel fnd) lvl) as [Heq|Hne].
      - left. split; [exact Heq|]. rewrite <- Heq. split.
        + apply (peq_trans _ _ _ (phi_ext _ _ _ HP)). apply phi_node. exact SB.
        + apply (peq_trans _ _ _ (plo_ext _ _ _ HP)). apply plo_node. exact SB.
      - right. split; [lia|].
        assert (SP : sup lvl P) by (apply (zden_sup s (RN idf) P lvl B DF); rewrite Rf; lia).
        split; [apply phi_below | apply plo_below]; exact SP. }
    destruct (zcube_cases s M lvl vars B Hc Hl)
      as [(vnode & Ev & Hcmp & Hm & Hc')|(vnode & vhi & vlo & Ev & Hcmp & Ekv & Hc' & Hcase)];
      rewrite Ev; cbv zeta.
    + (* negative literal at lvl: LO branch, don't-care node *)
      rewrite Hm in Hnode.
      assert (Hgoal : zresult_okB s
                (match zrestrict C cget cadd n s c (if Nat.eqb (nlevel fnd) lvl then eref flo else RN idf) vars (S lvl) with
                 | None => None
                 | Some (s1, c1, child) => let '(s2, r) := zmk_node1 s1 lvl child in Some (s2, c1, r)
                 end) (prestr (nlevels s) M lvl P)).
      { apply (zresultB_ext C cget s _ _ _ (peq_sym _ _ Hnode)).
        apply zstep_mk1B; auto; [|apply prestr_sup].
        destruct Hparts as [(Heq & _ & H0)|(Hlt & _ & H0)].
        - rewrite (proj2 (Nat.eqb_eq _ _) Heq).
          apply (zresultB_ext C cget s _ (prestr (nlevels s) M (S lvl) PB)); [apply prestr_ext, peq_sym, H0|].
          apply IH; auto; [rewrite <- Heq; lia | lia].
        - destruct (Nat.eqb_spec (nlevel fnd) lvl) as [Heq|_]; [lia|].
          apply (zresultB_ext C cget s _ (prestr (nlevels s) M (S lvl) P)); [apply prestr_ext, peq_sym, H0|].
          apply IH; auto; [rewrite Rf; lia | lia]. }
      destruct (lcmp (vlevel vnode) (Some lvl)); [contradiction | exact Hgoal | exact Hgoal].
    + rewrite Hcmp, Ekv.
      destruct Hcase as [[Er Hm]|[Er Hm]]; rewrite Er; simpl negb; cbv iota; rewrite Hm in Hnode.
      * (* no literal at lvl *)
        destruct Hparts as [(Heq & H1 & H0)|(Hlt & H1 & H0)].
        -- (* f has a node at lvl: recurse on both children *)
           rewrite (proj2 (Nat.eqb_eq _ _) Heq). simpl negb. cbv iota.
           destruct (cget c zcode_restrict [RN idf; vars] [nlevels s]) as [r0|] eqn:Ecache.
           { (* cache hit *)
             destruct (O _ _ _ _ Ecache) as [_ Ox]. simpl in Ox.
             destruct (Ox eq_refl eq_refl) as (P0 & id0 & nd0 & M0 & D0 & Eid & En0 & Hc0 & Dr).
             inversion Eid; subst id0. rewrite Enf in En0. inversion En0; subst nd0.
             apply (zresultB_here C cget); auto. apply (zden_ext s r0 _ _ Dr). rewrite Heq.
             apply (peq_trans _ (prestr (nlevels s) M lvl P0)).
             - apply prestr_ext_M. intros l Hl'. rewrite Heq in Hc0.
               apply (zcube_agree s M0 M lvl vars H Hc0 Hc l). exact Hl'.
             - apply prestr_ext. apply (zden_unique s _ _ _ D0 DF). }
           destruct (IH s c (eref fhi) vhi (S lvl) PA M B Hch O DA Hc' ltac:(lia) ltac:(lia))
             as (s1 & c1 & hi & E1 & B1 & X1 & O1 & D1).
           rewrite E1.
           pose proof (ext_nlevels _ _ X1) as Hn1.
           destruct (IH s1 c1 (eref flo) vhi (S lvl) PB M B1 (zchain_extends s s1 B B1 X1 Hch) O1
                       (zden_extends s s1 _ _ B X1 DB) (zcube_extends s s1 M _ _ X1 Hc')
                       ltac:(rewrite (ext_rlevel _ _ _ X1 (zden_ok _ _ _ DB)); lia) ltac:(rewrite Hn1; lia))
             as (s2 & c2 & lo & E2 & B2 & X2 & O2 & D2).
           rewrite E2. rewrite Hn1 in D2.
           pose proof (ext_nlevels _ _ X2) as Hn2. rewrite Hn1 in Hn2.
           destruct (zmk2B C cget s1 s2 c2 lvl hi lo _ _ B1 B2 X2 O2 ltac:(rewrite Hn2; exact Hl) D1 D2
                       (prestr_sup (nlevels s) M lvl PA) (prestr_sup (nlevels s) M lvl PB))
             as (s3 & r & Em & B3 & X3 & O3 & D3).
           rewrite Em.
           pose proof (extends_trans _ _ _ X1 (extends_trans _ _ _ X2 X3)) as X.
           assert (Dr : ZDen s3 r (prestr (nlevels s) M lvl P)).
           { apply (zden_ext s3 r _ _ D3). apply peq_sym. apply (peq_trans _ _ _ Hnode).
             apply node_pred_ext; apply prestr_ext; assumption. }
           exists s3, (cadd c2 zcode_restrict [RN idf; vars] [nlevels s] r), r.
           split; [reflexivity|]. split; [exact B3|]. split; [exact X|]. split; [|exact Dr].
           apply (zcacheokb_add C cget cadd Hlossy); [exact O3| |].
           ++ apply zentry_ok_other; intros o; destruct o; discriminate.
           ++ intros _ _.
              exists P, idf, fnd, M. split; [apply (zden_extends s s3 _ _ B X DF)|]. split; [reflexivity|].
              split; [apply (ext_nodes _ _ X); exact Enf|]. rewrite Heq.
              split; [apply (zcube_extends s s3 M _ _ X Hc)|].
              rewrite (ext_nlevels _ _ X). exact Dr.
        -- (* f lies below lvl: nothing of the result contains lvl *)
           destruct (Nat.eqb_spec (nlevel fnd) lvl) as [Heq|_]; [lia|]. simpl negb. cbv iota.
           apply (zresultB_ext C cget s _ (prestr (nlevels s) M (S lvl) P)).
           { apply peq_sym. apply (peq_trans _ _ _ Hnode).
             apply (peq_trans _ (node_pred lvl pempty (prestr (nlevels s) M (S lvl) P))).
             - apply node_pred_ext.
               + apply (peq_trans _ (prestr (nlevels s) M (S lvl) pempty)); [apply prestr_ext; exact H1 | apply prestr_empty].
               + apply prestr_ext. exact H0.
             - apply node_pred_empty_hi. }
           apply IH; auto; [rewrite Rf; lia | lia].
      * (* positive literal at lvl: HI branch *)
        destruct Hparts as [(Heq & H1 & H0)|(Hlt & H1 & H0)].
        -- rewrite (proj2 (Nat.eqb_eq _ _) Heq). simpl negb. cbv iota.
           apply (zresultB_ext C cget s _ _ _ (peq_sym _ _ Hnode)).
           apply zstep_mk1B; auto; [|apply prestr_sup].
           apply (zresultB_ext C cget s _ (prestr (nlevels s) M (S lvl) PA)); [apply prestr_ext, peq_sym, H1|].
           apply IH; auto; lia.
        -- destruct (Nat.eqb_spec (nlevel fnd) lvl) as [Heq|_]; [lia|]. simpl negb. cbv iota.
           destruct (zempty_spec s B) as [te [Ee Ete]]. rewrite Ee.
           apply (zresultB_here C cget); auto. apply (zden_ext s _ pempty); [apply (zden_empty s te B Ete)|].
           apply peq_sym. apply (peq_trans _ _ _ Hnode).
           apply (peq_trans _ (node_pred lvl pempty pempty)); [|apply node_pred_empty_hi].
           apply node_pred_ext; (apply (peq_trans _ (prestr (nlevels s) M (S lvl) pempty)); [apply prestr_ext; exact H1 | apply prestr_empty]).
Qed.

End ZRestrict.
