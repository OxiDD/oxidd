(** * The Boolean interface of the ZBDD kind, part 6: restrict in the Boolean reading

    - [zcube_den]: a reference of the shape [ZCube s M lvl vars] denotes the
      conjunction of the literals [M] (from level [lvl] on) - the structural
      reading of the cube is the semantic one;
    - [zcube_lits_cube]: the executable reader [zcube_lits] (run on real
      snapshots) returns the literals of a [ZCube], sorted by level;
    - [zrestrict_edge_sound]: the view of the result of [restrict_edge] at a
      choice [c] is the view of the operand at [c] with the literal levels
      overridden (= the cofactor w.r.t. the cube);
    - [zrestrict_edge_bfun]: in terms of assignments and [Sem.restrict_s]. *)

From Coq Require Import List NArith PArith Bool Arith Lia FMapPositive.
From OxiVerif Require Import Base.ListFacts DD.Table DD.TableExtra DD.TableProofs DD.Sem DD.SemFacts DD.Build DD.BuildProofs
  DD.Apply DD.ApplyProofs DD.ApplyEvalProofs DD.CanonZbdd DD.FamSpec DD.FamSpecProofs DD.ZbddOps DD.ZbddOpsProofs
  DD.ZbddSubsetProofs DD.ZbddSoundProofs DD.ZbddVars DD.ZbddVarsProofs DD.ZbddBool DD.ZbddBoolProofs
  DD.ZbddXorProofs DD.ZbddIteProofs DD.ZbddEvalProofs DD.ZbddRestrictProofs.
Import ListNotations.

(** ** A cube denotes the conjunction of its literals *)

(** the family of the conjunction of the literals of [M] among the levels [lvl, n) *)
Definition pcube (n : nat) (M : nat -> option bool) (lvl : nat) : fpred :=
  fun S => incr_from lvl S /\ Forall (fun x => x < n) S /\
    forall l, lvl <= l < n -> (M l = Some true -> In l S) /\ (M l = Some false -> ~ In l S).

Lemma incr_from_no_low : forall S lvl L, incr_from lvl S ->
  (forall l, lvl <= l < L -> ~ In l S) -> lvl <= L -> incr_from L S.
Proof.
  intros S lvl L Hi Hno Hl. destruct S as [|x T]; [exact I|].
  simpl in Hi. destruct Hi as [Hx HT]. simpl. split; [|exact HT].
  destruct (Nat.lt_ge_cases x L) as [Hlt|Hge]; [|exact Hge].
  exfalso. apply (Hno x); [lia | left; reflexivity].
Qed.

Lemma pcube_start : forall n M lvl L S, lvl <= L <= n ->
  (forall l, lvl <= l < L -> M l = Some false) -> pcube n M lvl S -> incr_from L S.
Proof.
  intros n M lvl L S HL Hneg [Hi [_ Hlit]]. apply (incr_from_no_low S lvl L Hi); [|lia].
  intros l Hl. apply (proj2 (Hlit l ltac:(lia))). apply Hneg. exact Hl.
Qed.

Lemma pcube_tail : forall n M lvl L T, lvl <= L < n ->
  (forall l, lvl <= l < L -> M l = Some false) -> M L <> Some false ->
  (pcube n M lvl (L :: T) <-> pcube n M (S L) T).
Proof.
  intros n M lvl L T HL Hneg HmL. unfold pcube. split.
  - intros [[_ HT] [Hb Hlit]]. inversion Hb; subst. split; [exact HT|]. split; [assumption|].
    intros l Hl. destruct (Hlit l ltac:(lia)) as [A1 A2]. split.
    + intros Hx. destruct (A1 Hx) as [Hy|Hy]; [lia | exact Hy].
    + intros Hx Hy. apply (A2 Hx). right. exact Hy.
  - intros [HT [Hb Hlit]]. split; [simpl; split; [lia | exact HT]|]. split; [constructor; [lia | exact Hb]|].
    intros l Hl. destruct (lt_eq_lt_dec l L) as [[Hlt|Heq]|Hgt].
    + rewrite (Hneg l ltac:(lia)). split; [discriminate|]. intros _ [Hx|Hx]; [lia|].
      pose proof (incr_from_ge T (Datatypes.S L) l HT Hx). lia.
    + subst l. split; [intros _; left; reflexivity | intros Hx; contradiction].
    + destruct (Hlit l ltac:(lia)) as [A1 A2]. split.
      * intros Hx. right. apply A1. exact Hx.
      * intros Hx [Hy|Hy]; [lia | apply (A2 Hx Hy)].
Qed.

Lemma pcube_below : forall n M lvl L S, lvl <= L < n ->
  (forall l, lvl <= l < L -> M l = Some false) -> M L <> Some true ->
  incr_from (Datatypes.S L) S ->
  (pcube n M lvl S <-> pcube n M (Datatypes.S L) S).
Proof.
  intros n M lvl L S HL Hneg HmL HS. unfold pcube. split.
  - intros [_ [Hb Hlit]]. split; [exact HS|]. split; [exact Hb|]. intros l Hl. apply Hlit. lia.
  - intros [_ [Hb Hlit]]. split; [apply (incr_from_weaken S (Datatypes.S L)); [lia | exact HS]|]. split; [exact Hb|].
    intros l Hl. destruct (Nat.lt_ge_cases L l) as [Hgt|Hle]; [apply Hlit; lia|].
    assert (Hnot : ~ In l S) by (apply (incr_from_notin S (Datatypes.S L) l HS); lia).
    split; [|intros _; exact Hnot].
    destruct (Nat.eq_dec l L) as [->|Hne]; [intros Hx; contradiction|].
    rewrite (Hneg l ltac:(lia)). discriminate.
Qed.

Lemma pcube_node : forall n M lvl L, lvl <= L < n -> (forall l, lvl <= l < L -> M l = Some false) ->
  peq (pcube n M lvl)
      (node_pred L (match M L with Some false => pempty | _ => pcube n M (S L) end)
                   (match M L with Some true => pempty | _ => pcube n M (S L) end)).
Proof.
  intros n M lvl L HL Hneg.
  apply (peq_trans _ _ _ (pdecomp L _ (fun S => pcube_start n M lvl L S ltac:(lia) Hneg))).
  apply node_pred_ext.
  - intros T. pose proof (pcube_tail n M lvl L T HL Hneg) as Ht.
    destruct (M L) as [[|]|] eqn:Hm; try (apply Ht; discriminate).
    unfold pempty. split; [|intros []]. intros [_ [_ Hlit]].
    apply (proj2 (Hlit L ltac:(lia)) Hm). left. reflexivity.
  - intros S.
    assert (Hb : M L <> Some true -> (pcube n M lvl S /\ incr_from (Datatypes.S L) S <-> pcube n M (Datatypes.S L) S)).
    { intros HmL. split.
      - intros [HX Hi]. apply (pcube_below n M lvl L S HL Hneg HmL Hi). exact HX.
      - intros HX. assert (Hi : incr_from (Datatypes.S L) S) by apply HX.
        split; [apply (pcube_below n M lvl L S HL Hneg HmL Hi); exact HX | exact Hi]. }
    destruct (M L) as [[|]|] eqn:Hm; try (apply Hb; discriminate).
    unfold pempty. split; [|intros []]. intros [[_ [_ Hlit]] Hi].
    apply (incr_from_notin S (Datatypes.S L) L Hi); [lia | apply (proj1 (Hlit L ltac:(lia)) Hm)].
Qed.

Theorem zcube_den : forall s M lvl vars, ZbddOK s -> ZCube s M lvl vars -> lvl <= nlevels s ->
  ZDen s vars (pcube (nlevels s) M lvl).
Proof.
  intros s M lvl vars B Hc. pose proof (zo_wf s B) as H.
  induction Hc as [lvl t Et Hneg | lvl id nd hi En Ec Hle Hneg Hm Hc' IH | lvl id nd hi lo En Ec Hne He Hle Hneg Hm Hc' IH];
    intros Hl.
  - apply (zden_ext s _ pbase); [apply (zden_base s t B Et)|].
    intros S. unfold pbase, pcube. split.
    + intros ->. split; [exact I|]. split; [constructor|]. intros l Hl'. split; [|intros _ []].
      rewrite (Hneg l Hl'). discriminate.
    + intros [Hi [Hb Hlit]]. destruct S as [|x T]; [reflexivity|]. exfalso.
      simpl in Hi. inversion Hb; subst.
      apply (proj2 (Hlit x ltac:(lia)) (Hneg x ltac:(lia))). left. reflexivity.
  - pose proof (wf_level s H id nd En) as HL.
    apply (zden_ext s _ (node_pred (nlevel nd) (pcube (nlevels s) M (S (nlevel nd))) (pcube (nlevels s) M (S (nlevel nd))))).
    + apply (zden_node s id nd (E hi) (E hi) _ _ B En Ec); apply IH; lia.
    + apply peq_sym, (peq_trans _ _ _ (pcube_node (nlevels s) M lvl (nlevel nd) ltac:(lia) Hneg)).
      rewrite Hm. apply peq_refl.
  - pose proof (wf_level s H id nd En) as HL.
    destruct (is_empty_b_true s lo He) as [te [-> Ete]].
    apply (zden_ext s _ (node_pred (nlevel nd) (pcube (nlevels s) M (S (nlevel nd))) pempty)).
    + apply (zden_node s id nd (E hi) (E (RT te)) _ _ B En Ec); [apply IH; lia | apply (zden_empty s te B Ete)].
    + apply peq_sym, (peq_trans _ _ _ (pcube_node (nlevels s) M lvl (nlevel nd) ltac:(lia) Hneg)).
      rewrite Hm. apply peq_refl.
Qed.

(** ** The executable cube reader *)

Definition lits_map (lits : list (nat * bool)) : nat -> option bool := fun l => assoc_nat lits l.

Lemma assoc_nat_some_in : forall (lits : list (nat * bool)) v b, assoc_nat lits v = Some b -> In (v, b) lits.
Proof.
  induction lits as [|[k bk] r IH]; intros v b E; [discriminate|]. simpl in E.
  destruct (Nat.eqb_spec k v) as [->|_]; [inversion E; left; reflexivity | right; auto].
Qed.

Lemma assoc_nat_in : forall (lits : list (nat * bool)) v b, NoDup (map fst lits) -> In (v, b) lits ->
  assoc_nat lits v = Some b.
Proof.
  induction lits as [|[k bk] r IH]; intros v b Hnd Hin; [destruct Hin|].
  simpl in Hnd. inversion Hnd as [|? ? Hk Hr]; subst. simpl.
  destruct Hin as [Heq|Hin].
  - inversion Heq; subst. rewrite Nat.eqb_refl. reflexivity.
  - destruct (Nat.eqb_spec k v) as [->|_]; [|apply IH; assumption].
    exfalso. apply Hk. apply in_map_iff. exists (v, b). auto.
Qed.

Lemma zneg_lits_fst : forall cnt from, map fst (zneg_lits from cnt) = seq from cnt.
Proof. induction cnt as [|k IH]; intros from; simpl; [reflexivity | rewrite IH; reflexivity]. Qed.

Lemma assoc_zneg_in : forall cnt from rest l, from <= l < from + cnt ->
  assoc_nat (zneg_lits from cnt ++ rest) l = Some false.
Proof.
  induction cnt as [|k IH]; intros from rest l Hl; [lia|]. simpl.
  destruct (Nat.eqb_spec from l) as [_|Hne]; [reflexivity | apply IH; lia].
Qed.

Lemma assoc_zneg_out : forall cnt from rest l, ~ (from <= l < from + cnt) ->
  assoc_nat (zneg_lits from cnt ++ rest) l = assoc_nat rest l.
Proof.
  induction cnt as [|k IH]; intros from rest l Hl; [reflexivity|]. simpl.
  destruct (Nat.eqb_spec from l) as [E|Hne]; [lia | apply IH; lia].
Qed.

Lemma incr_from_seq : forall cnt from rest, incr_from (from + cnt) rest -> incr_from from (seq from cnt ++ rest).
Proof.
  induction cnt as [|k IH]; intros from rest Hr; simpl.
  - rewrite Nat.add_0_r in Hr. exact Hr.
  - split; [lia|]. apply IH. replace (S from + k) with (from + S k) by lia. exact Hr.
Qed.

(** the literal list read off a cube: sorted by level, within [lvl, n), and [ZCube] holds for it *)
Theorem zcube_lits_cube : forall s, ZbddOK s -> forall fuel vars lvl lits,
  zcube_lits fuel s vars lvl = Some lits -> lvl <= nlevels s ->
  incr_from lvl (map fst lits) /\ Forall (fun x => x < nlevels s) (map fst lits) /\
  ZCube s (lits_map lits) lvl vars.
Proof.
  intros s B. pose proof (zo_wf s B) as H.
  induction fuel as [|f IH]; intros vars lvl lits E Hl; [discriminate|].
  simpl in E. destruct (zget s vars) as [[v|nd]|] eqn:Ev; [| |discriminate].
  - (* Base *)
    destruct vars as [t|id]; [|simpl in Ev; destruct (find_node s id); discriminate].
    simpl in Ev. destruct (term_val s t) as [v'|] eqn:Et; [|discriminate]. inversion Ev; subst v'.
    destruct (N.eqb_spec v 1) as [->|_]; [|discriminate]. inversion E; subst lits.
    rewrite zneg_lits_fst. split; [|split].
    + pose proof (incr_from_seq (nlevels s - lvl) lvl [] I) as Hs. rewrite app_nil_r in Hs. exact Hs.
    + apply Forall_forall. intros x Hx. apply in_seq in Hx. lia.
    + apply ZC_term; [exact Et|]. intros l Hl'. unfold lits_map.
      pose proof (assoc_zneg_in (nlevels s - lvl) lvl [] l ltac:(lia)) as Ha.
      rewrite app_nil_r in Ha. exact Ha.
  - (* node *)
    destruct vars as [t|id]; [simpl in Ev; destruct (term_val s t); discriminate|].
    simpl in Ev. destruct (find_node s id) as [nd'|] eqn:En; [|discriminate]. inversion Ev; subst nd'.
    destruct (Nat.ltb_spec (nlevel nd) lvl) as [Hlt|Hge]; [discriminate|].
    pose proof (wf_level s H id nd En) as HL. set (L := nlevel nd) in *.
    destruct (zchildren_E s id nd B En) as [hi [lo Ec]]. rewrite Ec in E. simpl eref in E.
    destruct (zcube_lits f s hi (S L)) as [rest|] eqn:Er; [|discriminate].
    destruct (IH hi (S L) rest Er ltac:(lia)) as (Hi & Hb & Hc).
    assert (Hneg : forall l rest', lvl <= l < L -> lits_map (zneg_lits lvl (L - lvl) ++ rest') l = Some false).
    { intros l rest' Hl'. apply assoc_zneg_in. lia. }
    assert (HnotL : ~ In L (map fst rest)) by (apply (incr_from_notin _ (Datatypes.S L) L Hi); lia).
    destruct (ref_eqb hi lo) eqn:Ehl.
    + (* no literal *)
      apply ref_eqb_eq in Ehl. subst lo. inversion E; subst lits.
      rewrite map_app, zneg_lits_fst. split; [|split].
      * apply incr_from_seq. replace (lvl + (L - lvl)) with L by lia.
        apply (incr_from_weaken _ (Datatypes.S L)); [lia | exact Hi].
      * apply Forall_app. split; [|exact Hb]. apply Forall_forall. intros x Hx. apply in_seq in Hx. lia.
      * apply (ZC_dc s _ lvl id nd hi En Ec Hge).
        -- intros l Hl'. apply Hneg. exact Hl'.
        -- unfold lits_map. rewrite assoc_zneg_out by lia. apply assoc_nat_notin. exact HnotL.
        -- apply (zcube_ext s (lits_map rest)); [|exact Hc].
           intros l Hl'. unfold lits_map. rewrite assoc_zneg_out by lia. reflexivity.
    + destruct (is_empty_b s lo) eqn:Ee; [|discriminate]. inversion E; subst lits.
      rewrite map_app, zneg_lits_fst. simpl map. split; [|split].
      * apply incr_from_seq. replace (lvl + (L - lvl)) with L by lia. simpl. split; [lia | exact Hi].
      * apply Forall_app. split; [apply Forall_forall; intros x Hx; apply in_seq in Hx; lia|].
        constructor; assumption.
      * apply (ZC_pos s _ lvl id nd hi lo En Ec).
        -- intros Heq. subst lo. rewrite (proj2 (ref_eqb_eq hi hi) eq_refl) in Ehl. discriminate.
        -- exact Ee.
        -- exact Hge.
        -- intros l Hl'. apply Hneg. exact Hl'.
        -- unfold lits_map. rewrite assoc_zneg_out by lia. simpl. rewrite Nat.eqb_refl. reflexivity.
        -- apply (zcube_ext s (lits_map rest)); [|exact Hc].
           intros l Hl'. unfold lits_map. rewrite assoc_zneg_out by lia. simpl.
           destruct (Nat.eqb_spec L l); [lia | reflexivity].
Qed.

(** ** The Boolean reading of the result *)

(** the choice [c] with the literal levels overridden *)
Definition covr (M : nat -> option bool) (c : nat -> nat) : nat -> nat :=
  fun l => match M l with Some true => 0 | Some false => 1 | None => c l end.

Lemma covr_ok : forall s M c, s_kind s = KZbdd -> choice_ok s c -> choice_ok s (covr M c).
Proof.
  intros s M c Hk Hc l. unfold covr. specialize (Hc l). rewrite Hk in *. simpl in *.
  destruct (M l) as [[|]|]; lia.
Qed.

Lemma ovl_true_levels : forall s M c, s_kind s = KZbdd -> choice_ok s c ->
  ovl M (true_levels c 0 (nlevels s)) 0 (nlevels s) = true_levels (covr M c) 0 (nlevels s).
Proof.
  intros s M c Hk Hc. unfold ovl. apply true_levels_ext. intros l Hl. unfold cm, covr.
  destruct (M l) as [[|]|]; try reflexivity.
  specialize (Hc l). rewrite Hk in Hc. simpl in Hc.
  destruct (smem l (true_levels c 0 (nlevels s))) eqn:Es.
  - apply smem_spec in Es. apply true_levels_range in Es. destruct Es as [_ Es]. symmetry. exact Es.
  - apply smem_false in Es. destruct (c l) as [|[|k]] eqn:Ecl; [|reflexivity | lia].
    exfalso. apply Es. apply true_levels_in; [lia | exact Ecl].
Qed.

Section ZRestrictTop.
Variable C : Type.
Variable cget : C -> N -> list ref -> list nat -> option ref.
Variable cadd : C -> N -> list ref -> list nat -> ref -> C.
Hypothesis Hlossy : zlossy C cget cadd.

Notation ZCacheOKB := (ZCacheOKB C cget).

(** [restrict_edge]: the view of the result at [c] is the view of the operand at [c] with
    the cube's literal levels overridden; [vars] is any reference of cube shape *)
Theorem zrestrict_edge_cube : forall fuel s c f vars M,
  ZbddOK s -> ZChainOK s -> ZCacheOKB s c -> ref_ok s f -> ZCube s M 0 vars ->
  S (nlevels s) <= fuel ->
  exists s' c' r, zrestrict_edge C cget cadd fuel s c f vars = Some (s', c', r) /\
    zstate_ok C cget s s' c' r /\
    forall c0, choice_ok s c0 -> zview_of s' r c0 = zview_of s f (covr M c0).
Proof.
  intros fuel s c f vars M B Hch O Of Hc Hf. pose proof (zo_kind s B) as Hk.
  destruct (zden_exists s f B Of) as [P DF].
  destruct (zstate_of_result C cget s _ _ B Hch
              (zrestrict_ok C cget cadd Hlossy fuel s c f vars 0 P M B Hch O DF Hc ltac:(lia) ltac:(lia)))
    as (s' & c' & r & E & St & D).
  exists s', c', r. split; [exact E|]. split; [exact St|].
  destruct St as (B' & _ & X & _ & _). intros c0 Hc0.
  destruct (zden_view_ext s s' r _ c0 B' X D Hc0) as [br [Er Hbr]].
  destruct (zden_view s f P (covr M c0) B DF (covr_ok s M c0 Hk Hc0)) as [bf [Ef Hbf]].
  rewrite Er, Ef. f_equal.
  apply (bool_iff_eq br bf (P (true_levels (covr M c0) 0 (nlevels s)))); [|exact Hbf].
  rewrite Hbr. unfold prestr. rewrite Nat.sub_0_r, (ovl_true_levels s M c0 Hk Hc0).
  pose proof (true_levels_pall (nlevels s) c0) as [Hi Hb]. tauto.
Qed.

(** with the cube read by the executable reader *)
Theorem zrestrict_edge_sound : forall s c f vars lits,
  ZbddOK s -> ZChainOK s -> ZCacheOKB s c -> ref_ok s f ->
  zcube_lits (S (nlevels s)) s vars 0 = Some lits ->
  exists s' c' r, zrestrict_edge C cget cadd (S (nlevels s)) s c f vars = Some (s', c', r) /\
    zstate_ok C cget s s' c' r /\
    (forall c0, choice_ok s c0 -> zview_of s' r c0 = zview_of s f (covr (lits_map lits) c0)) /\
    ZDen s vars (pcube (nlevels s) (lits_map lits) 0).
Proof.
  intros s c f vars lits B Hch O Of El.
  destruct (zcube_lits_cube s B _ vars 0 lits El ltac:(lia)) as (_ & _ & Hc).
  destruct (zrestrict_edge_cube _ s c f vars _ B Hch O Of Hc (le_n _)) as (s' & c' & r & E & St & Hv).
  exists s', c', r. split; [exact E|]. split; [exact St|]. split; [exact Hv|].
  apply (zcube_den s _ 0 vars B Hc). lia.
Qed.

End ZRestrictTop.

(** ** In terms of assignments and [Sem.restrict_s] *)

(** the view of a cube: all its literals hold *)
Theorem zcube_view : forall s vars lits c0, ZbddOK s -> choice_ok s c0 ->
  zcube_lits (S (nlevels s)) s vars 0 = Some lits ->
  zview_of s vars c0 =
    Some (forallb (fun p : nat * bool => Nat.eqb (c0 (fst p)) (if snd p then 0 else 1)) lits).
Proof.
  intros s vars lits c0 B Hc0 El. pose proof (zo_kind s B) as Hk.
  destruct (zcube_lits_cube s B _ vars 0 lits El ltac:(lia)) as (Hi & Hb & Hc).
  pose proof (zcube_den s _ 0 vars B Hc ltac:(lia)) as D.
  destruct (zden_view s vars _ c0 B D Hc0) as [b [Eb Hbv]]. rewrite Eb. f_equal.
  pose proof (incr_from_nodup _ _ Hi) as Hnd.
  assert (Hc2 : forall l, c0 l < 2) by (intros l; specialize (Hc0 l); rewrite Hk in Hc0; exact Hc0).
  apply (bool_iff_eq _ _ _ Hbv). rewrite forallb_forall. unfold pcube. split.
  - intros Hall. pose proof (true_levels_pall (nlevels s) c0) as [Hi' Hb'].
    split; [exact Hi'|]. split; [exact Hb'|]. intros l Hl. unfold lits_map. split.
    + intros Hm. specialize (Hall _ (assoc_nat_some_in lits l true Hm)). simpl in Hall.
      apply Nat.eqb_eq in Hall. apply true_levels_in; [lia | exact Hall].
    + intros Hm Hx. specialize (Hall _ (assoc_nat_some_in lits l false Hm)). simpl in Hall.
      apply Nat.eqb_eq in Hall. apply true_levels_range in Hx. lia.
  - intros [_ [_ Hlit]] [l b0] Hin. simpl.
    assert (Hl : l < nlevels s).
    { rewrite Forall_forall in Hb. apply Hb. apply in_map_iff. exists (l, b0). auto. }
    destruct (Hlit l ltac:(lia)) as [A1 A2]. unfold lits_map in A1, A2.
    rewrite (assoc_nat_in lits l b0 Hnd Hin) in A1, A2. apply Nat.eqb_eq. destruct b0.
    + specialize (A1 eq_refl). apply true_levels_range in A1. apply A1.
    + specialize (A2 eq_refl). specialize (Hc2 l). destruct (c0 l) as [|[|k]] eqn:Ecl; [|reflexivity | lia].
      exfalso. apply A2. apply true_levels_in; [lia | exact Ecl].
Qed.

Lemma restrict_s_apply : forall lits (g : bfun) a,
  restrict_s lits g a = g (fold_left (fun a0 (p : nat * bool) => Sem.upd a0 (fst p) (snd p)) lits a).
Proof.
  induction lits as [|[v b] r IH]; intros g a; [reflexivity|]. simpl. unfold cof. apply IH.
Qed.

(** the literal list in terms of variables *)
Definition lits_vars (s : snap) (lits : list (nat * bool)) : list (nat * bool) :=
  map (fun p : nat * bool => (nth (fst p) (s_l2v s) 0, snd p)) lits.

Lemma choice_of_fold_upd : forall s, WF s -> forall (lits : list (nat * bool)) a l,
  Forall (fun x => x < nlevels s) (map fst lits) -> NoDup (map fst lits) ->
  choice_of s (fold_left (fun a0 (p : nat * bool) => Sem.upd a0 (fst p) (snd p)) (lits_vars s lits) a) l =
  covr (lits_map lits) (choice_of s a) l.
Proof.
  intros s H. induction lits as [|[k b] r IH]; intros a l Hb Hnd; [reflexivity|].
  simpl in Hb, Hnd. inversion Hb as [|? ? Hk Hr]; subst. inversion Hnd as [|? ? Hnk Hndr]; subst.
  simpl fold_left. rewrite (IH _ l Hr Hndr).
  destruct (wf_perm_l2v s H k Hk) as [v [E1 E2]].
  rewrite (nth_error_nth _ _ 0 E1).
  unfold covr, lits_map. simpl assoc_nat.
  destruct (Nat.eqb_spec k l) as [->|Hne].
  - rewrite (assoc_nat_notin _ r l Hnk).
    rewrite (choice_of_upd s a v l b H E1 l). unfold TableProofs.upd. rewrite Nat.eqb_refl.
    destruct b; reflexivity.
  - destruct (assoc_nat r l) as [[|]|]; try reflexivity.
    rewrite (choice_of_upd s a v k b H E1 l). unfold TableProofs.upd.
    destruct (Nat.eqb_spec l k); [congruence | reflexivity].
Qed.

Lemma forallb_map_eq : forall (A B : Type) (f : B -> bool) (g : A -> B) l,
  forallb f (map g l) = forallb (fun x => f (g x)) l.
Proof. intros A B f g l. induction l as [|x r IH]; [reflexivity|]. simpl. rewrite IH. reflexivity. Qed.

Section ZRestrictBfun.
Variable C : Type.
Variable cget : C -> N -> list ref -> list nat -> option ref.
Variable cadd : C -> N -> list ref -> list nat -> ref -> C.
Hypothesis Hlossy : zlossy C cget cadd.

(** C04 for ZBDDs: [restrict] = the cofactor w.r.t. the partial assignment given by the cube *)
Theorem zrestrict_edge_bfun : forall s c f vars lits,
  ZbddOK s -> ZChainOK s -> ZCacheOKB C cget s c -> ref_ok s f ->
  zcube_lits (S (nlevels s)) s vars 0 = Some lits ->
  exists s' c' r, zrestrict_edge C cget cadd (S (nlevels s)) s c f vars = Some (s', c', r) /\
    zstate_ok C cget s s' c' r /\
    (forall a, zbfun_of s' r a = restrict_s (lits_vars s lits) (zbfun_of s f) a) /\
    (forall a, zbfun_of s vars a =
       forallb (fun p : nat * bool => Bool.eqb (a (fst p)) (snd p)) (lits_vars s lits)).
Proof.
  intros s c f vars lits B Hch O Of El. pose proof (zo_wf s B) as H. pose proof (zo_kind s B) as Hk.
  destruct (zcube_lits_cube s B _ vars 0 lits El ltac:(lia)) as (Hi & Hb & Hc).
  pose proof (incr_from_nodup _ _ Hi) as Hnd.
  destruct (zrestrict_edge_sound C cget cadd Hlossy s c f vars lits B Hch O Of El)
    as (s' & c' & r & E & St & Hv & _).
  exists s', c', r. split; [exact E|]. split; [exact St|]. split.
  - intros a. destruct St as (B' & _ & X & _ & _).
    rewrite restrict_s_apply. unfold zbfun_of at 1 2.
    rewrite (choice_of_ext s s' a X), (Hv _ (choice_of_ok s a Hk)).
    unfold zview_of.
    apply (f_equal (fun o : option bool => match o with Some true => true | _ => false end)).
    symmetry. apply (semz_ext_lt s H).
    intros l _. apply (choice_of_fold_upd s H lits a l Hb Hnd).
  - intros a. apply zbfun_of_view. rewrite (zcube_view s vars lits _ B (choice_of_ok s a Hk) El). f_equal.
    unfold lits_vars. rewrite forallb_map_eq. apply forallb_ext_in. intros [l b0] Hin. simpl.
    assert (Hl : l < nlevels s).
    { rewrite Forall_forall in Hb. apply Hb. apply in_map_iff. exists (l, b0). auto. }
    destruct (wf_perm_l2v s H l Hl) as [v [E1 E2]].
    rewrite (nth_error_nth _ _ 0 E1). unfold choice_of. rewrite E1.
    destruct (a v), b0; reflexivity.
Qed.

End ZRestrictBfun.
