(** * The ZBDD set operations: top-level statements (C09)

    Every operation of [BooleanVecSet] and [make_node], on every well-formed
    ZBDD snapshot, with every lossy cache, every operand order [gt] and fuel
    [>= S nlevels]: the model returns an edge, the table is only extended and
    still well-formed (zero-suppressed, unique), the cache stays valid, and the
    list [famz] computes for the result has exactly the members of the
    documented set expression (DD/FamSpec.v) of the operands' lists.

    (Union, intersection, difference: [zapply_sound] in DD/ZbddXorProofs.v.)
    Also: cache instances, constants, singleton, make_node, growing tables
    (add_vars) and the Boolean view after growth. *)

From Coq Require Import List NArith PArith Bool Arith Lia FMapPositive.
From OxiVerif Require Import DD.Table DD.TableExtra DD.TableProofs DD.Build DD.BuildProofs
  DD.Apply DD.ApplyProofs DD.CanonZbdd DD.FamSpec DD.FamSpecProofs DD.ZbddOps DD.ZbddOpsProofs
  DD.ZbddSubsetProofs.
Import ListNotations.

(** ** From predicates back to lists *)

Definition pof (F : fam) : fpred := fun S => In S F.

Lemma zden_of_fam : forall s r F, ref_ok s r -> fam_of s r = Some F -> ZDen s r (pof F).
Proof. intros s r F O E. split; [exact O|]. exists F. split; [exact E | reflexivity]. Qed.

Lemma zden_fam : forall s r P, ZDen s r P -> exists F, fam_of s r = Some F /\ forall S, In S F <-> P S.
Proof. intros s r P [_ HF]. exact HF. Qed.

Lemma pbin_f_bin : forall o F G S, pbin o (pof F) (pof G) S <-> In S (f_bin o F G).
Proof.
  intros o F G S. unfold pof. destruct o; simpl.
  - rewrite in_f_union. reflexivity.
  - rewrite in_f_intsec. reflexivity.
  - rewrite in_f_diff. reflexivity.
Qed.

Lemma psub_f_sub : forall o l F S, psub o l (pof F) S <-> In S (f_sub o l F).
Proof.
  intros o l F S. unfold pof. destruct o; simpl.
  - rewrite in_f_subset0. reflexivity.
  - rewrite in_f_subset1. reflexivity.
  - rewrite in_f_change. reflexivity.
Qed.

Definition FUEL (s : snap) : nat := S (nlevels s).

Section Top.
Variable gt : ref -> ref -> bool.
Variable C : Type.
Variable cget : C -> N -> list ref -> list nat -> option ref.
Variable cadd : C -> N -> list ref -> list nat -> ref -> C.
Hypothesis Hlossy : zlossy C cget cadd.

(** subset0, subset1, change *)
Theorem zsubset_sound : forall op fuel s (c : C) f var,
  ZbddOK s -> ZCacheOK C cget s c -> ref_ok s f -> var < length (s_v2l s) -> FUEL s <= fuel ->
  exists vl s' c' r F R,
    nth_error (s_v2l s) var = Some vl /\
    zsubset_top C cget cadd fuel s c op f var = Some (s', c', r) /\
    ZbddOK s' /\ extends s s' /\ ZCacheOK C cget s' c' /\ ref_ok s' r /\
    fam_of s f = Some F /\ fam_of s' r = Some R /\
    feq R (f_sub op vl F).
Proof.
  intros op fuel s c f var B O Of Hv Hf. pose proof (zo_wf s B) as H. pose proof (zo_kind s B) as Hk.
  destruct (fam_of_total s H Hk f Of) as [F EF].
  destruct (nth_error (s_v2l s) var) as [vl|] eqn:Ev; [|apply nth_error_None in Ev; lia].
  pose proof (rlevel_le s H f).
  destruct (zsubset_ok C cget cadd Hlossy op var vl fuel s c f (pof F) B O
              (zden_of_fam s f F Of EF) Ev ltac:(unfold FUEL in Hf; lia))
    as (s' & c' & r & E & B' & X & O' & D).
  destruct (zden_fam s' r _ D) as [R [ER HR]].
  exists vl, s', c', r, F, R. split; [reflexivity|].
  split; [unfold zsubset_top; rewrite Ev; exact E|].
  repeat (split; [assumption|]).
  split; [apply (zden_ok _ _ _ D)|]. repeat (split; [assumption|]).
  intros S. rewrite (HR S). apply psub_f_sub.
Qed.

End Top.

(** ** Constants, singleton, make_node *)

Theorem zempty_sound : forall s, ZbddOK s ->
  exists r, zempty s = Some r /\ ref_ok s r /\ fam_of s r = Some f_empty.
Proof.
  intros s B. destruct (zempty_spec s B) as [t [E Et]]. exists (RT t).
  split; [exact E|]. split; [exists 0%N; exact Et|].
  rewrite (fam_of_term s t 0%N Et). reflexivity.
Qed.

Theorem zbase_sound : forall s, ZbddOK s ->
  exists r, zbase s = Some r /\ ref_ok s r /\ fam_of s r = Some f_base.
Proof.
  intros s B. destruct (zbase_spec s B) as [t [E Et]]. exists (RT t).
  split; [exact E|]. split; [exists 1%N; exact Et|].
  rewrite (fam_of_term s t 1%N Et). reflexivity.
Qed.

Theorem zsingleton_sound : forall s var, ZbddOK s -> var < length (s_v2l s) ->
  exists vl s' r R,
    nth_error (s_v2l s) var = Some vl /\ zsingleton s var = Some (s', r) /\
    ZbddOK s' /\ extends s s' /\ ref_ok s' r /\
    fam_of s' r = Some R /\ feq R (f_singleton vl).
Proof.
  intros s var B Hv. pose proof (zo_wf s B) as H.
  destruct (nth_error (s_v2l s) var) as [vl|] eqn:Ev; [|apply nth_error_None in Ev; lia].
  destruct (zbase_spec s B) as [tb [Eb Etb]]. destruct (zempty_spec s B) as [te [Ee Ete]].
  pose proof (v2l_range s var vl H Ev) as Hl.
  assert (Hne : is_empty_b s (RT tb) = false)
    by (unfold is_empty_b, is_term_with; rewrite Etb; reflexivity).
  (* [get_or_insert] with hi = Base is what [reduce] does as well *)
  assert (Em : zsingleton s var =
               Some (zmk_node s vl (RT tb) (RT te))).
  { unfold zsingleton, zmk_node. rewrite Eb, Ee, Ev, Hne.
    destruct (get_or_insert s vl [E (RT tb); E (RT te)]). reflexivity. }
  destruct (zmk_node s vl (RT tb) (RT te)) as [s' r] eqn:Emk.
  destruct (zmk_node_ok s vl (RT tb) (RT te) pbase pempty s' r B Hl
              (zden_base s tb B Etb) (zden_empty s te B Ete)
              ltac:(simpl; exact Hl) ltac:(simpl; exact Hl) Emk) as (B' & X & D & _).
  destruct (zden_fam s' r _ D) as [R [ER HR]].
  exists vl, s', r, R. split; [reflexivity|]. split; [exact Em|]. split; [exact B'|].
  split; [exact X|]. split; [apply (zden_ok _ _ _ D)|]. split; [exact ER|].
  intros S. rewrite (HR S), in_f_singleton. unfold node_pred, pbase, pempty. split.
  - intros [[T [-> ->]]|[]]. reflexivity.
  - intros ->. left. exists []. auto.
Qed.

(** the root of a singleton set {L} is a node at level L *)
Lemma singleton_root : forall s var Fv L, ZbddOK s -> ref_ok s var ->
  fam_of s var = Some Fv -> feq Fv (f_singleton L) ->
  exists id nd, var = RN id /\ find_node s id = Some nd /\ nlevel nd = L.
Proof.
  intros s var Fv L B O EF Hq.
  assert (Hin : In [L] Fv) by (apply Hq; left; reflexivity).
  destruct var as [t|id].
  - exfalso. destruct O as [v Et]. rewrite (fam_of_term s t v Et) in EF. inversion EF; subst Fv.
    destruct (N.eqb v 1); simpl in Hin; [destruct Hin as [Hx|[]]; discriminate | destruct Hin].
  - destruct O as [nd En]. exists id, nd. split; [reflexivity|]. split; [exact En|].
    destruct (fam_nonempty s B _ (RN id) (ex_intro _ nd En) (le_n _)) as [F' [S [E' [HS Hh]]]];
      [intros t Hx; discriminate|].
    rewrite EF in E'. inversion E'; subst F'.
    destruct (Hh id nd eq_refl En) as [T ->].
    apply Hq in HS. simpl in HS. destruct HS as [HS|[]]. inversion HS. reflexivity.
Qed.

(** [make_node(var, hi, lo)] under its documented precondition: [var] is a
    singleton set {L} whose level is above the levels of [hi] and [lo] *)
Theorem zmake_node_sound : forall s var hi lo Fv L,
  ZbddOK s -> ref_ok s var -> ref_ok s hi -> ref_ok s lo ->
  fam_of s var = Some Fv -> feq Fv (f_singleton L) ->
  L < rlevel s hi -> L < rlevel s lo ->
  exists s' r A Bf R,
    zmake_node s var hi lo = Some (s', r) /\
    ZbddOK s' /\ extends s s' /\ ref_ok s' r /\
    fam_of s hi = Some A /\ fam_of s lo = Some Bf /\ fam_of s' r = Some R /\
    feq R (f_make_node L A Bf).
Proof.
  intros s var hi lo Fv L B Ov Oh Ol EF Hq Lh Ll.
  pose proof (zo_wf s B) as H. pose proof (zo_kind s B) as Hk.
  destruct (singleton_root s var Fv L B Ov EF Hq) as (id & nd & -> & En & HL).
  destruct (fam_of_total s H Hk hi Oh) as [A EA]. destruct (fam_of_total s H Hk lo Ol) as [Bf EB].
  unfold zmake_node. simpl zget. rewrite En, (wf_stored s H id nd En), HL.
  destruct (zmk_node s L hi lo) as [s' r] eqn:Em.
  assert (HLn : L < nlevels s) by (rewrite <- HL; apply (wf_level s H id nd En)).
  pose proof (zden_of_fam s hi A Oh EA) as DA. pose proof (zden_of_fam s lo Bf Ol EB) as DB.
  destruct (zmk_node_ok s L hi lo _ _ s' r B HLn DA DB Lh Ll Em) as (B' & X & D & _).
  destruct (zden_fam s' r _ D) as [R [ER HR]].
  exists s', r, A, Bf, R. split; [reflexivity|]. split; [exact B'|]. split; [exact X|].
  split; [apply (zden_ok _ _ _ D)|]. repeat (split; [assumption|]).
  intros S. rewrite (HR S), in_f_make_node. unfold node_pred, pof. split.
  - intros [[T [-> HT]]|Hb]; [right | left; exact Hb].
    exists T. split; [exact HT|]. symmetry. apply sinsert_head.
    apply (zden_below s hi (pof A) L T B DA Lh HT).
  - intros [Hb|[T [HT ->]]]; [right; exact Hb | left].
    exists T. split; [|exact HT]. apply sinsert_head.
    apply (zden_below s hi (pof A) L T B DA Lh HT).
Qed.

(** ** Cache instances *)

Lemma zac_lossy : zlossy zacache zac_get zac_add.
Proof.
  intros c k a m r k' a' m' r'. unfold zac_add. simpl.
  destruct (N.eqb_spec k k') as [->|Hk]; simpl; [|auto].
  destruct (refs_eqb a a') eqn:Ea; simpl; [|auto].
  destruct (nat_list_eqb m m') eqn:Em; [|auto].
  apply refs_eqb_eq in Ea. apply nat_list_eqb_eq in Em. subst.
  intros Hx. inversion Hx. left. auto.
Qed.

Lemma znc_lossy : zlossy unit znc_get znc_add.
Proof. intros c k a m r k' a' m' r' Hx. discriminate. Qed.

Lemma zac_empty_ok : forall s, ZCacheOK zacache zac_get s [].
Proof. intros s code args nums r Hx. discriminate. Qed.

Lemma znc_ok : forall s c, ZCacheOK unit znc_get s c.
Proof. intros s c code args nums r Hx. discriminate. Qed.

(** ** Growing tables: add_vars, node creation *)

(** [s'] keeps every node and terminal of [s] and has at least as many levels
    (what [add_vars] does to a ZBDD manager: new levels at the bottom, the
    tautology chain rebuilt, existing nodes untouched) *)
Record grows (s s' : snap) : Prop := mkGrows {
  gr_terms : s_terms s' = s_terms s;
  gr_levels : nlevels s <= nlevels s';
  gr_nodes : forall id nd, find_node s id = Some nd -> find_node s' id = Some nd
}.

Lemma extends_grows : forall s s', extends s s' -> grows s s'.
Proof.
  intros s s' X. constructor.
  - apply (ext_terms _ _ X).
  - rewrite (ext_nlevels _ _ X). lia.
  - apply (ext_nodes _ _ X).
Qed.

(** families are stable: every edge of [s] denotes in [s'] the family it denoted in [s] *)
Theorem grows_fam : forall s s' r, WF s -> s_kind s = KZbdd -> grows s s' -> ref_ok s r ->
  fam_of s' r = fam_of s r.
Proof.
  intros s s' r H Hk G O. unfold fam_of.
  rewrite (famz_stable s s' H Hk (fun t => f_equal (fun l => assoc_N l t) (gr_terms _ _ G)) (gr_nodes _ _ G) _ r O).
  pose proof (gr_levels _ _ G). pose proof (rlevel_le s H r). apply (famz_fuel s H Hk); auto; lia.
Qed.

(** the characteristic function over more levels: the additional levels must be lo *)
Lemma fam_bool_more : forall n k F c, (forall l, c l < 2) ->
  (forall S, In S F -> Forall (fun x => x < n) S) ->
  fam_bool (n + k) F c = fam_bool n F c && all_lo c n k.
Proof.
  intros n k F c Hc Hb. unfold fam_bool. rewrite true_levels_app. simpl plus.
  rewrite (all_lo_true_levels c k n Hc).
  destruct (true_levels c n k) as [|x T] eqn:ET; simpl.
  - rewrite app_nil_r, andb_true_r. reflexivity.
  - rewrite andb_false_r. apply fmem_false. intros Hin.
    assert (Hx : In x (true_levels c n k)) by (rewrite ET; left; reflexivity).
    apply true_levels_range in Hx.
    pose proof (Hb _ Hin) as Hall. rewrite Forall_forall in Hall.
    specialize (Hall x ltac:(apply in_or_app; right; left; reflexivity)). lia.
Qed.

(** the Boolean view of an old edge in the grown table: as before, and all new variables false *)
Theorem grows_bool_view : forall s s' r c F,
  WF s -> s_kind s = KZbdd -> WF s' -> s_kind s' = KZbdd -> grows s s' ->
  ref_ok s r -> ref_ok s' r -> choice_ok s' c -> fam_of s r = Some F ->
  semz s' (S (nlevels s')) 0 r c =
    Some (fam_bool (nlevels s) F c && all_lo c (nlevels s) (nlevels s' - nlevels s)).
Proof.
  intros s s' r c F H Hk H' Hk' G O O' Hc EF.
  assert (EF' : fam_of s' r = Some F) by (rewrite (grows_fam s s' r H Hk G O); exact EF).
  rewrite (bool_view s' H' Hk' r c F O' Hc EF'). f_equal.
  pose proof (gr_levels _ _ G).
  replace (nlevels s') with (nlevels s + (nlevels s' - nlevels s)) at 1 by lia.
  apply fam_bool_more.
  - apply (choice_lt2 s' Hk' c Hc).
  - intros S HS. apply (fam_of_members s H Hk r F S EF HS).
Qed.
