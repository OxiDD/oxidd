(** * C09: composite statements (their conjunctions / case forms are proved here so that
    coq/Props/C09.v contains only [exact]) *)
From Coq Require Import List NArith PArith Bool Arith FMapPositive.
From OxiVerif Require Import DD.Table DD.TableExtra DD.TableProofs DD.Build DD.BuildProofs
  DD.FamSpec DD.FamSpecProofs DD.ZbddOps DD.ZbddOpsProofs DD.ZbddSubsetProofs DD.ZbddSoundProofs
  DD.ZbddVars DD.ZbddVarsProofs DD.ZbddBool DD.ZbddBoolProofs DD.ZbddXorProofs DD.ZbddExamples.
Import ListNotations.

Theorem c09_set_expressions_thm : forall (F G : fam) (v : nat) (S : lset),
  (In S f_empty <-> False) /\ (In S f_base <-> S = []) /\ (In S (f_singleton v) <-> S = [v]) /\
  (In S (f_union F G) <-> In S F \/ In S G) /\
  (In S (f_intsec F G) <-> In S F /\ In S G) /\
  (In S (f_diff F G) <-> In S F /\ ~ In S G) /\
  (In S (f_subset0 v F) <-> In S F /\ ~ In v S) /\
  (In S (f_subset1 v F) <-> exists S0, In S0 F /\ In v S0 /\ S = sremove v S0) /\
  (In S (f_change v F) <->
     (exists S0, In S0 F /\ ~ In v S0 /\ S = sinsert v S0) \/
     (exists S0, In S0 F /\ In v S0 /\ S = sremove v S0)) /\
  (In S (f_make_node v F G) <-> In S G \/ exists S0, In S0 F /\ S = sinsert v S0).
Proof.
  intros F G v S.
  split; [apply in_f_empty|]. split; [apply in_f_base|]. split; [apply in_f_singleton|].
  split; [apply in_f_union|]. split; [apply in_f_intsec|]. split; [apply in_f_diff|].
  split; [apply in_f_subset0|]. split; [apply in_f_subset1|]. split; [apply in_f_change|].
  apply in_f_make_node.
Qed.

Theorem c09_set_ops_thm : forall v S x,
  (In x (sremove v S) <-> In x S /\ x <> v) /\ (In x (sinsert v S) <-> x = v \/ In x S) /\
  (forall lo, incr_from lo S -> incr_from lo (sremove v S)) /\
  (forall lo, incr_from lo S -> lo <= v -> incr_from lo (sinsert v S)).
Proof.
  intros v S x. split; [apply in_sremove|]. split; [apply in_sinsert|].
  split; [intros lo; apply incr_from_sremove | intros lo; apply incr_from_sinsert].
Qed.

Theorem c09_apply_sound_thm : forall gt C cget cadd, zlossy C cget cadd ->
  forall op fuel s (c : C) f g,
  ZbddOK s -> ZCacheOK C cget s c -> ref_ok s f -> ref_ok s g -> S (nlevels s) <= fuel ->
  exists s' c' r F G R,
    zapply gt C cget cadd fuel s c op f g = Some (s', c', r) /\
    ZbddOK s' /\ extends s s' /\ ZCacheOK C cget s' c' /\ ref_ok s' r /\
    fam_of s f = Some F /\ fam_of s g = Some G /\ fam_of s' r = Some R /\
    feq R (match op with
           | ZUnion => f_union F G
           | ZIntsec => f_intsec F G
           | ZDiff => f_diff F G
           end).
Proof.
  intros gt C cget cadd HL op fuel s c f g B O Of Og Hf.
  destruct (zapply_sound gt C cget cadd HL op fuel s c f g B O Of Og Hf)
    as (s' & c' & r & F & G & R & E & B' & X & O' & Or & EF & EG & ER & Hq).
  exists s', c', r, F, G, R. repeat (split; [assumption|]). destruct op; exact Hq.
Qed.

Theorem c09_subset_sound_thm : forall C cget cadd, zlossy C cget cadd ->
  forall op fuel s (c : C) f var,
  ZbddOK s -> ZCacheOK C cget s c -> ref_ok s f -> var < length (s_v2l s) ->
  S (nlevels s) <= fuel ->
  exists vl s' c' r F R,
    nth_error (s_v2l s) var = Some vl /\
    zsubset_top C cget cadd fuel s c op f var = Some (s', c', r) /\
    ZbddOK s' /\ extends s s' /\ ZCacheOK C cget s' c' /\ ref_ok s' r /\
    fam_of s f = Some F /\ fam_of s' r = Some R /\
    feq R (match op with
           | ZSubset0 => f_subset0 vl F
           | ZSubset1 => f_subset1 vl F
           | ZChange => f_change vl F
           end).
Proof.
  intros C cget cadd HL op fuel s c f var B O Of Hv Hf.
  destruct (zsubset_sound C cget cadd HL op fuel s c f var B O Of Hv Hf)
    as (vl & s' & c' & r & F & R & Ev & E & B' & X & O' & Or & EF & ER & Hq).
  exists vl, s', c', r, F, R. repeat (split; [assumption|]). destruct op; exact Hq.
Qed.

Theorem c09_caches_thm : zlossy zacache zac_get zac_add /\ zlossy unit znc_get znc_add /\
  (forall s, ZCacheOK zacache zac_get s []) /\ (forall s c, ZCacheOK unit znc_get s c).
Proof. split; [exact zac_lossy|]. split; [exact znc_lossy|]. split; [exact zac_empty_ok | exact znc_ok]. Qed.

Theorem c09_example_thm :
  ZbddOK ex_z3 /\ ZCacheOK zacache zac_get ex_z3 [] /\
  fam_of ex_z3 (RN 3) = Some [[0; 2]; [1]; [2]] /\
  zout (zapply zgt_id zacache zac_get zac_add (S (nlevels ex_z3)) ex_z3 [] ZDiff (RN 3) (RN 2))
    = Some (4, RN 4, Some [[0; 2]]) /\
  zout (zsubset_top zacache zac_get zac_add (S (nlevels ex_z3)) ex_z3 [] ZChange (RN 2) 2)
    = Some (4, RN 4, Some [[0; 1]; [0; 2]]) /\
  zout (zsubset_top zacache zac_get zac_add (S (nlevels ex_z3)) ex_z3 [] ZChange (RN 3) 1)
    = Some (5, RN 5, Some [[0]; [1; 2]; []]) /\
  ZbddOK ex_z4 /\ grows ex_z3 ex_z4.
Proof.
  split; [exact ex_z3_ok|]. split; [exact ex_z3_cache_ok|].
  split; [apply ex_z3_fams|].
  split; [apply ex_z3_binary|]. split; [apply ex_z3_unary|]. split; [apply ex_z3_unary|].
  exact ex_z4_grows.
Qed.

