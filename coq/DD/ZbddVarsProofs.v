(** * add_vars and the tautology chain of ZBDD managers: proofs (model: DD/ZbddVars.v)

    - [add_levels_ok]: appending [k] levels keeps the table well-formed, keeps
      every node ([grows]) and hence every family;
    - [ztaut_chain_ok]: the rebuilt chain only extends the table, keeps it
      well-formed, and [taut(l)] denotes the family of all subsets of the
      levels [l, nlevels) ([f_powerset]) -- in the Boolean view: constant true
      from level [l] on;
    - [zadd_vars_ok]: both together. *)

From Coq Require Import List NArith PArith Bool Arith Lia FMapPositive.
From OxiVerif Require Import Base.ListFacts DD.Table DD.TableExtra DD.TableProofs DD.Build DD.BuildProofs
  DD.Apply DD.ApplyProofs DD.CanonZbdd DD.FamSpec DD.FamSpecProofs DD.ZbddOps DD.ZbddOpsProofs
  DD.ZbddSubsetProofs DD.ZbddSoundProofs DD.ZbddVars.
Import ListNotations.

(** ** [f_powerset] *)

Lemma in_f_powerset : forall cnt from S,
  In S (f_powerset from cnt) <-> incr_from from S /\ Forall (fun x => x < from + cnt) S.
Proof.
  induction cnt as [|k IH]; intros from S; simpl.
  - split.
    + intros [<-|[]]. split; [exact I | constructor].
    + intros [Hi Hb]. left. destruct S as [|x r]; [reflexivity|].
      simpl in Hi. inversion Hb; subst. lia.
  - rewrite in_app_iff, in_map_iff. split.
    + intros [[T [<- HT]]|HS].
      * apply IH in HT. destruct HT as [Hi Hb]. split; [simpl; split; [lia | exact Hi]|].
        constructor; [lia|]. eapply Forall_impl; [|exact Hb]. simpl. intros; lia.
      * apply IH in HS. destruct HS as [Hi Hb]. split.
        -- apply (incr_from_weaken S (Datatypes.S from)); [lia | exact Hi].
        -- eapply Forall_impl; [|exact Hb]. simpl. intros; lia.
    + intros [Hi Hb]. destruct S as [|x r].
      * right. apply IH. split; [exact I | constructor].
      * simpl in Hi. destruct Hi as [Hx Hr]. inversion Hb as [|? ? Hxb Hrb]; subst.
        destruct (Nat.eq_dec x from) as [->|Hne].
        -- left. exists r. split; [reflexivity|]. apply IH. split; [exact Hr|].
           eapply Forall_impl; [|exact Hrb]. simpl. intros; lia.
        -- right. apply IH. split; [simpl; split; [lia | exact Hr]|].
           constructor; [lia|]. eapply Forall_impl; [|exact Hrb]. simpl. intros; lia.
Qed.

(** the family of all subsets is, as a Boolean function, constant true *)
Lemma fam_bool_powerset : forall n c, fam_bool n (f_powerset 0 n) c = true.
Proof.
  intros n c. unfold fam_bool. apply fmem_spec. apply in_f_powerset. split.
  - apply true_levels_incr.
  - apply Forall_forall. intros x Hx. apply true_levels_range in Hx. lia.
Qed.

(** ** Appending levels *)

Lemma inv_on_extend : forall a b k, length a = length b -> inv_on a b ->
  inv_on (a ++ seq (length a) k) (b ++ seq (length a) k).
Proof.
  intros a b k Hlen Hab i Hi. rewrite app_length, seq_length in Hi.
  destruct (Nat.lt_ge_cases i (length a)) as [Hlt|Hge].
  - destruct (Hab i Hlt) as [j [E1 E2]]. exists j. split.
    + rewrite nth_error_app1 by exact Hlt. exact E1.
    + assert (Hj : j < length b) by (apply nth_error_Some; congruence).
      rewrite nth_error_app1 by exact Hj. exact E2.
  - exists i. split.
    + rewrite nth_error_app2 by exact Hge. rewrite nth_error_seq by lia. f_equal. lia.
    + rewrite nth_error_app2 by lia. rewrite <- Hlen. rewrite nth_error_seq by lia. f_equal. lia.
Qed.

Lemma add_levels_nlevels : forall s k, nlevels (add_levels s k) = nlevels s + k.
Proof. intros s k. unfold nlevels, add_levels. simpl. rewrite app_length, seq_length. reflexivity. Qed.

Lemma add_levels_ref_ok : forall s k r, ref_ok (add_levels s k) r <-> ref_ok s r.
Proof. intros s k [t|id]; reflexivity. Qed.

Lemma add_levels_rlevel_ge : forall s k r, rlevel s r <= rlevel (add_levels s k) r.
Proof.
  intros s k [t|id]; simpl.
  - rewrite add_levels_nlevels. lia.
  - change (find_node (add_levels s k) id) with (find_node s id).
    destruct (find_node s id); [lia | rewrite add_levels_nlevels; lia].
Qed.

Lemma add_levels_wf : forall s k, WF s -> WF (add_levels s k).
Proof.
  intros s k H.
  assert (Hlen : length (s_v2l s) = length (s_l2v s)) by apply (wf_perm_len s H).
  constructor.
  - simpl. rewrite !app_length, !seq_length. unfold nlevels. lia.
  - simpl. unfold nlevels. rewrite <- Hlen. apply inv_on_extend; [exact Hlen | apply (wf_perm_v2l s H)].
  - simpl. unfold nlevels. rewrite <- Hlen at 1. rewrite Hlen.
    apply inv_on_extend; [symmetry; exact Hlen | apply (wf_perm_l2v s H)].
  - intros id nd E. apply (wf_arity s H id nd E).
  - intros id nd E. apply (wf_stored s H id nd E).
  - intros id nd E. rewrite add_levels_nlevels. pose proof (wf_level s H id nd E). lia.
  - intros id nd e E He. destruct (wf_child s H id nd e E He) as [A B]. split.
    + apply add_levels_ref_ok. exact A.
    + pose proof (add_levels_rlevel_ge s k (eref e)). lia.
  - intros id nd E. apply (wf_reduced s H id nd E).
  - intros Hk id nd e E He. apply (wf_tags s H Hk id nd e E He).
  - intros i1 i2 n1 n2 E1 E2. apply (wf_unique s H i1 i2 n1 n2 E1 E2).
  - apply (wf_term_ids s H).
  - apply (wf_term_vals s H).
  - intros h Hh. destruct (wf_handles s H h Hh) as [A B]. split; [apply add_levels_ref_ok; exact A | exact B].
Qed.

Theorem add_levels_ok : forall s k, ZbddOK s ->
  ZbddOK (add_levels s k) /\ grows s (add_levels s k) /\
  nlevels (add_levels s k) = nlevels s + k /\
  forall r, ref_ok s r -> fam_of (add_levels s k) r = fam_of s r.
Proof.
  intros s k B.
  assert (G : grows s (add_levels s k)).
  { constructor; [reflexivity | rewrite add_levels_nlevels; lia | auto]. }
  split.
  - constructor.
    + apply add_levels_wf. apply (zo_wf s B).
    + apply (zo_kind s B).
    + apply (zo_codes s B).
    + apply (zo_empty s B).
    + apply (zo_base s B).
  - split; [exact G|]. split; [apply add_levels_nlevels|].
    intros r O. apply (grows_fam s _ r (zo_wf s B) (zo_kind s B) G O).
Qed.

(** ** The tautology chain *)

(** all subsets of the levels [from, n) *)
Definition pall (n from : nat) : fpred :=
  fun S => incr_from from S /\ Forall (fun x => x < n) S.

Lemma pall_base : forall n, peq pbase (pall n n).
Proof.
  intros n S. unfold pbase, pall. split.
  - intros ->. split; [exact I | constructor].
  - intros [Hi Hb]. destruct S as [|x r]; [reflexivity|]. simpl in Hi. inversion Hb; subst. lia.
Qed.

Lemma pall_step : forall n c, c < n ->
  peq (node_pred c (pall n (S c)) (pall n (S c))) (pall n c).
Proof.
  intros n c Hc S. unfold node_pred, pall. split.
  - intros [[T [-> [Hi Hb]]]|[Hi Hb]].
    + split; [simpl; split; [lia | exact Hi] | constructor; [exact Hc | exact Hb]].
    + split; [apply (incr_from_weaken S (Datatypes.S c)); [lia | exact Hi] | exact Hb].
  - intros [Hi Hb]. destruct S as [|x r]; [right; split; [exact I | constructor]|].
    simpl in Hi. destruct Hi as [Hx Hr]. inversion Hb as [|? ? Hxb Hrb]; subst.
    destruct (Nat.eq_dec x c) as [->|Hne].
    + left. exists r. auto.
    + right. split; [simpl; split; [lia | exact Hr] | exact Hb].
Qed.

(** a reference whose family has a member is not the Empty terminal *)
Lemma nonempty_not_empty : forall s e P S, ZbddOK s -> ZDen s e P -> P S -> is_empty_b s e = false.
Proof.
  intros s e P S B D HP. destruct (is_empty_b s e) eqn:Ee; [|reflexivity].
  destruct (is_empty_b_true s e Ee) as [t [-> Et]].
  destruct (proj1 (zden_unique s (RT t) P pempty D (zden_empty s t B Et) S) HP).
Qed.

(** [ch] lists [taut(from)], [taut(from+1)], ..., [taut(nlevels)] *)
Definition chain_ok (s : snap) (from : nat) (ch : list ref) : Prop :=
  length ch = nlevels s - from + 1 /\
  forall i r, nth_error ch i = Some r -> ZDen s r (pall (nlevels s) (from + i)).

Lemma ztaut_build_ok : forall cnt s e acc,
  ZbddOK s -> cnt <= nlevels s -> nth_error acc 0 = Some e -> chain_ok s cnt acc ->
  exists s' ch, ztaut_build cnt s e acc = (s', ch) /\
    ZbddOK s' /\ extends s s' /\ chain_ok s' 0 ch.
Proof.
  induction cnt as [|c IH]; intros s e acc B Hc He Hch.
  - exists s, acc. split; [reflexivity|]. split; [exact B|]. split; [apply extends_refl | exact Hch].
  - simpl ztaut_build.
    destruct Hch as [Hlen Hden].
    pose proof (Hden 0 e He) as De. rewrite Nat.add_0_r in De.
    assert (Hne : is_empty_b s e = false).
    { apply (nonempty_not_empty s e _ [] B De). split; [exact I | constructor]. }
    assert (Hlev : c < rlevel s e).
    { apply (zden_level s e _ (S c) B De Hc). intros S [Hi _]. exact Hi. }
    destruct (get_or_insert s c [E e; E e]) as [s1 e1] eqn:Eg.
    assert (Em : zmk_node s c e e = (s1, eref e1)) by (unfold zmk_node; rewrite Hne, Eg; reflexivity).
    destruct (zmk_node_ok s c e e _ _ s1 (eref e1) B ltac:(lia) De De Hlev Hlev Em) as (B1 & X1 & D1 & _).
    pose proof (ext_nlevels _ _ X1) as Hn1.
    assert (D1' : ZDen s1 (eref e1) (pall (nlevels s) c))
      by (apply (zden_ext s1 _ _ _ D1); apply (pall_step (nlevels s) c); lia).
    destruct (IH s1 (eref e1) (eref e1 :: acc) B1 ltac:(lia) eq_refl) as (s' & ch & E' & B' & X' & Hch').
    + split; [simpl; rewrite Hn1, Hlen; lia|].
      intros i r Hi. destruct i as [|i]; simpl in Hi.
      * inversion Hi; subst r. rewrite Nat.add_0_r, Hn1. exact D1'.
      * rewrite Hn1. replace (c + S i) with (S c + i) by lia.
        apply (zden_extends s s1 r _ B X1). apply Hden. exact Hi.
    + exists s', ch. split; [exact E'|]. split; [exact B'|].
      split; [apply (extends_trans _ _ _ X1 X') | exact Hch'].
Qed.

(** [post_reorder_mut]: the chain [taut(0) .. taut(n)], each denoting all subsets
    of the levels below it *)
Theorem ztaut_chain_ok : forall s, ZbddOK s ->
  exists s' ch, ztaut_chain s = Some (s', ch) /\ ZbddOK s' /\ extends s s' /\
    length ch = nlevels s + 1 /\
    forall l t, nth_error ch l = Some t ->
      ref_ok s' t /\ exists F, fam_of s' t = Some F /\ feq F (f_powerset l (nlevels s - l)).
Proof.
  intros s B. destruct (zbase_spec s B) as [tb [Eb Etb]].
  unfold ztaut_chain. rewrite Eb.
  destruct (ztaut_build_ok (nlevels s) s (RT tb) [RT tb] B (le_n _) eq_refl) as (s' & ch & E & B' & X & [Hlen Hden]).
  - split; [simpl; lia|]. intros i r Hi. destruct i as [|[|i]]; simpl in Hi; try discriminate.
    inversion Hi; subst r. rewrite Nat.add_0_r.
    apply (zden_ext s _ pbase); [apply (zden_base s tb B Etb) | apply pall_base].
  - exists s', ch. split; [rewrite E; reflexivity|]. split; [exact B'|]. split; [exact X|].
    pose proof (ext_nlevels _ _ X) as Hn. split; [rewrite Hlen, Hn; lia|].
    intros l t Hl. pose proof (Hden l t Hl) as D. simpl in D.
    split; [apply (zden_ok _ _ _ D)|].
    destruct (zden_fam s' t _ D) as [F [EF HF]]. exists F. split; [exact EF|].
    assert (Hll : l < length ch) by (apply nth_error_Some; congruence).
    intros S. rewrite (HF S), in_f_powerset. unfold pall.
    replace (l + (nlevels s - l)) with (nlevels s') by lia. reflexivity.
Qed.

(** [add_vars(k)] of a ZBDD manager *)
Theorem zadd_vars_ok : forall s k, ZbddOK s ->
  exists s' ch, zadd_vars s k = Some (s', ch) /\ ZbddOK s' /\ grows s s' /\
    nlevels s' = nlevels s + k /\
    s_v2l s' = s_v2l s ++ seq (nlevels s) k /\ s_l2v s' = s_l2v s ++ seq (nlevels s) k /\
    (forall r, ref_ok s r -> fam_of s' r = fam_of s r) /\
    length ch = nlevels s' + 1 /\
    forall l t, nth_error ch l = Some t ->
      ref_ok s' t /\ exists F, fam_of s' t = Some F /\ feq F (f_powerset l (nlevels s' - l)).
Proof.
  intros s k B. destruct (add_levels_ok s k B) as (B1 & G1 & Hn1 & Hf1).
  destruct (ztaut_chain_ok (add_levels s k) B1) as (s' & ch & E & B' & X & Hlen & Hch).
  pose proof (ext_nlevels _ _ X) as Hn.
  exists s', ch. split; [exact E|]. split; [exact B'|].
  assert (G : grows s s').
  { constructor.
    - rewrite (ext_terms _ _ X). reflexivity.
    - rewrite Hn, Hn1. lia.
    - intros id nd E0. apply (ext_nodes _ _ X). exact E0. }
  split; [exact G|]. split; [rewrite Hn; exact Hn1|].
  split; [rewrite (ext_v2l _ _ X); reflexivity|]. split; [rewrite (ext_l2v _ _ X); reflexivity|].
  split; [intros r O; apply (grows_fam s s' r (zo_wf s B) (zo_kind s B) G O)|].
  split; [rewrite Hn; exact Hlen|].
  intros l t Hl. rewrite Hn. apply (Hch l t Hl).
Qed.

(** the Boolean view of [t_edge] = [taut(0)]: constant true *)
Theorem ztaut_true : forall s t F c, ZbddOK s -> ref_ok s t -> choice_ok s c ->
  fam_of s t = Some F -> feq F (f_powerset 0 (nlevels s)) ->
  semz s (S (nlevels s)) 0 t c = Some true.
Proof.
  intros s t F c B O Hc EF Hq.
  rewrite (bool_view s (zo_wf s B) (zo_kind s B) t c F O Hc EF). f_equal.
  unfold fam_bool. apply fmem_spec. apply Hq.
  apply fmem_spec. apply (fam_bool_powerset (nlevels s) c).
Qed.
