(** * union / intsec / diff, negation and symmetric difference as instances of the generic recursion

    The models of DD/ZbddOps.v / DD/ZbddBool.v are the configuration [fresh_id] /
    [SSeq] of the configuration-generic recursions ([zapply_g_seq], [zsymm_g_seq],
    [zapply_not_g_seq]); DD/ConfigZbddProofs.v proves those correct for every
    allocator and schedule with the stronger result predicate [zres_st].  Here:
    [zapply_ok] / [zapply_sound] (the set interface, C09), [zapply_okB],
    [zapply_not_ok], [zsymm_ok], [znot_var_ok] (the Boolean interface, part 2)
    for every lossy cache, operand order [gt] and sufficient fuel. *)

From Coq Require Import List NArith PArith Bool Arith Lia FMapPositive.
From OxiVerif Require Import DD.Table DD.TableExtra DD.TableProofs DD.Sem DD.Build DD.BuildProofs
  DD.Apply DD.ApplyProofs DD.CanonZbdd DD.FamSpec DD.FamSpecProofs DD.ZbddOps DD.ZbddOpsProofs
  DD.ZbddSubsetProofs DD.ZbddSoundProofs DD.ZbddVars DD.ZbddVarsProofs DD.ZbddBool DD.ZbddBoolProofs
  DD.ConfigApply DD.ConfigProofs DD.ConfigZbdd DD.ConfigZbddProofs.
Import ListNotations.

(** ** union / intsec / diff under the invariant of the set interface alone

    [ZCacheOK] says nothing about entries of the codes of the Boolean interface
    (SymmDiff, Ite, Restrict).  Read through [cget9], which hides them, such a
    cache satisfies the full invariant, and [zapply] never asks for them. *)

Section ZSetCache.
Variable gt : ref -> ref -> bool.
Variable C : Type.
Variable cget : C -> N -> list ref -> list nat -> option ref.
Variable cadd : C -> N -> list ref -> list nat -> ref -> C.
Hypothesis Hlossy : zlossy C cget cadd.

Definition zcode_x (k : N) : bool := N.eqb k zcode_symm || N.eqb k zcode_restrict || N.eqb k zcode_ite.

Definition cget9 (c : C) (k : N) (a : list ref) (m : list nat) : option ref :=
  if zcode_x k then None else cget c k a m.

Lemma cget9_lossy : zlossy C cget9 cadd.
Proof.
  intros c k a m r k' a' m' r'. unfold cget9. destruct (zcode_x k'); [discriminate | apply Hlossy].
Qed.

Lemma cget9_okB : forall s c, ZCacheOK C cget s c <-> ZCacheOKB C cget9 s c.
Proof.
  intros s c. split; intros O code args nums r E.
  - unfold cget9 in E. destruct (zcode_x code) eqn:Ex; [discriminate|]. split; [apply (O _ _ _ _ E)|].
    unfold zcode_x in Ex. apply orb_false_iff in Ex. destruct Ex as [Ex E8].
    apply orb_false_iff in Ex. destruct Ex as [E7 E3].
    apply zentry_x_other; apply N.eqb_neq; assumption.
  - destruct (zcode_x code) eqn:Ex.
    + apply zentry_ok_other; intros o ->; destruct o; discriminate.
    + apply (O code args nums r). unfold cget9. rewrite Ex. exact E.
Qed.

Lemma zapply_cget9 : forall fuel s c op f g,
  zapply gt C cget9 cadd fuel s c op f g = zapply gt C cget cadd fuel s c op f g.
Proof.
  induction fuel as [|n IH]; intros s c op f g; [reflexivity|].
  rewrite !zapply_S. destruct (zterminal s op f g); try reflexivity.
  destruct (if zcommutes op && gt f g then (g, f) else (f, g)) as [f' g'].
  replace (cget9 c (zop_code op) [f'; g'] []) with (cget c (zop_code op) [f'; g'] []) by (destruct op; reflexivity).
  destruct (cget c (zop_code op) [f'; g'] []); [reflexivity|].
  destruct (zget s f') as [vf|]; [|reflexivity]. destruct (zget s g') as [vg|]; [|reflexivity].
  cbv zeta. destruct (lcmp (vlevel vf) (vlevel vg)).
  - destruct (zkids vf) as [[fhi flo]|]; [|reflexivity]. destruct (zkids vg) as [[ghi glo]|]; [|reflexivity].
    destruct (vlevel vf); [|reflexivity]. rewrite IH.
    destruct (zapply gt C cget cadd n s c op fhi ghi) as [[[s1 c1] hi]|]; [|reflexivity]. rewrite IH. reflexivity.
  - destruct (zkids vf) as [[fhi flo]|]; [|reflexivity]. destruct (vlevel vf); [|reflexivity].
    rewrite IH. reflexivity.
  - destruct (zkids vg) as [[ghi glo]|]; [|reflexivity]. destruct (vlevel vg); [|reflexivity].
    rewrite IH. reflexivity.
Qed.

Theorem zapply_ok : forall op fuel s c f g P Q,
  ZbddOK s -> ZCacheOK C cget s c -> ZDen s f P -> ZDen s g Q ->
  nlevels s - Nat.min (rlevel s f) (rlevel s g) < fuel ->
  zresult_ok C cget s (zapply gt C cget cadd fuel s c op f g) (pbin op P Q).
Proof.
  intros op fuel s c f g P Q B O DF DG Hfuel. rewrite <- zapply_cget9, <- zapply_g_seq.
  destruct (zapply_g_ok fresh_id fresh_id_alloc_ok gt C cget9 cadd cget9_lossy op fuel SSeq s c f g P Q B
              (proj1 (cget9_okB s c) O) DF DG Hfuel) as (s' & c' & r & E & B' & X & O' & D & _).
  exists s', c', r. split; [exact E|]. split; [exact B'|]. split; [exact X|].
  split; [apply cget9_okB; exact O' | exact D].
Qed.

Theorem zapply_sound : forall op fuel s (c : C) f g,
  ZbddOK s -> ZCacheOK C cget s c -> ref_ok s f -> ref_ok s g -> FUEL s <= fuel ->
  exists s' c' r F G R,
    zapply gt C cget cadd fuel s c op f g = Some (s', c', r) /\
    ZbddOK s' /\ extends s s' /\ ZCacheOK C cget s' c' /\ ref_ok s' r /\
    fam_of s f = Some F /\ fam_of s g = Some G /\ fam_of s' r = Some R /\
    feq R (f_bin op F G).
Proof.
  intros op fuel s c f g B O Of Og Hf. pose proof (zo_wf s B) as H. pose proof (zo_kind s B) as Hk.
  destruct (fam_of_total s H Hk f Of) as [F EF]. destruct (fam_of_total s H Hk g Og) as [G EG].
  pose proof (rlevel_le s H f). pose proof (rlevel_le s H g).
  destruct (zapply_ok op fuel s c f g (pof F) (pof G) B O
              (zden_of_fam s f F Of EF) (zden_of_fam s g G Og EG)
              ltac:(unfold FUEL in Hf; lia))
    as (s' & c' & r & E & B' & X & O' & D).
  destruct (zden_fam s' r _ D) as [R [ER HR]].
  exists s', c', r, F, G, R. repeat (split; [assumption|]).
  split; [apply (zden_ok _ _ _ D)|]. repeat (split; [assumption|]).
  intros S. rewrite (HR S). apply pbin_f_bin.
Qed.

End ZSetCache.

Section ZXor.
Variable gt : ref -> ref -> bool.
Variable C : Type.
Variable cget : C -> N -> list ref -> list nat -> option ref.
Variable cadd : C -> N -> list ref -> list nat -> ref -> C.
Hypothesis Hlossy : zlossy C cget cadd.

Notation ZCacheOKB := (ZCacheOKB C cget).
Notation zresult_okB := (zresult_okB C cget).

(** chaining two results *)
Lemma zresultB_trans : forall s s1 res R, extends s s1 ->
  zresult_okB s1 res R -> zresult_okB s res R.
Proof.
  intros s s1 res R X1 (s2 & c2 & r2 & E & B2 & X2 & O2 & D2).
  exists s2, c2, r2. split; [exact E|]. split; [exact B2|]. split; [apply (extends_trans _ _ _ X1 X2)|].
  split; [exact O2 | exact D2].
Qed.

Theorem zapply_okB : forall op fuel s c f g P Q,
  ZbddOK s -> ZCacheOKB s c -> ZDen s f P -> ZDen s g Q ->
  nlevels s - Nat.min (rlevel s f) (rlevel s g) < fuel ->
  zresult_okB s (zapply gt C cget cadd fuel s c op f g) (pbin op P Q).
Proof.
  intros op fuel s c f g P Q B O DF DG Hf. rewrite <- zapply_g_seq. apply zres_st_weak.
  apply (zapply_g_ok fresh_id fresh_id_alloc_ok gt C cget cadd Hlossy); assumption.
Qed.

Theorem zapply_not_ok : forall fuel s c f P,
  ZbddOK s -> ZChainOK s -> ZCacheOKB s c -> ZDen s f P -> nlevels s < fuel ->
  zresult_okB s (zapply_not gt C cget cadd fuel s c f) (pbin ZDiff (pall (nlevels s) 0) P).
Proof.
  intros fuel s c f P B Hc O D Hf. rewrite <- zapply_not_g_seq. apply zres_st_weak.
  apply (zapply_not_g_ok fresh_id fresh_id_alloc_ok gt C cget cadd Hlossy); assumption.
Qed.

Theorem zsymm_ok : forall fuel s c f g P Q,
  ZbddOK s -> ZCacheOKB s c -> ZDen s f P -> ZDen s g Q ->
  nlevels s - Nat.min (rlevel s f) (rlevel s g) < fuel ->
  zresult_okB s (zsymm gt C cget cadd fuel s c f g) (pxor P Q).
Proof.
  intros fuel s c f g P Q B O DF DG Hfuel. rewrite <- zsymm_g_seq. apply zres_st_weak.
  apply (zsymm_g_ok fresh_id fresh_id_alloc_ok gt C cget cadd Hlossy); assumption.
Qed.

End ZXor.

Lemma zdc_wrap_ok : forall cnt lvl s e (R : fpred) s' r,
  ZbddOK s -> lvl + cnt <= nlevels s ->
  ZDen s e (fun S => R S /\ incr_from (lvl + cnt) S) ->
  (exists S, R S /\ incr_from (lvl + cnt) S) ->
  (forall S, R S -> incr_from lvl S) ->
  (forall l T, lvl <= l < lvl + cnt -> incr_from (Datatypes.S l) T -> (R (l :: T) <-> R T)) ->
  zdc_wrap lvl cnt s e = (s', r) ->
  ZbddOK s' /\ extends s s' /\ ZDen s' r R.
Proof.
  intros cnt lvl s e R s' r B Hn De Hex Hi Hopt Ew. rewrite <- zdc_wrap_a_fresh in Ew.
  apply (zdc_wrap_a_ok fresh_id fresh_id_alloc_ok cnt lvl s e R s' r); assumption.
Qed.

Theorem zvar_ok : forall s var, ZbddOK s -> ZChainOK s -> var < length (s_v2l s) ->
  exists L s' r, nth_error (s_v2l s) var = Some L /\ zvar s var = Some (s', r) /\
    ZbddOK s' /\ extends s s' /\ ZDen s' r (pvar (nlevels s) L).
Proof.
  intros s var B Hc Hv.
  destruct (nth_error (s_v2l s) var) as [L|] eqn:Ev; [|apply nth_error_None in Ev; lia].
  destruct (zvar_a_ok fresh_id fresh_id_alloc_ok s var L B Hc Ev) as (s' & r & Ez & Hr).
  rewrite zvar_a_fresh in Ez. exists L, s', r. auto.
Qed.

Section ZNotVar.
Variable gt : ref -> ref -> bool.
Variable C : Type.
Variable cget : C -> N -> list ref -> list nat -> option ref.
Variable cadd : C -> N -> list ref -> list nat -> ref -> C.
Hypothesis Hlossy : zlossy C cget cadd.

Theorem znot_var_ok : forall fuel s c var, ZbddOK s -> ZChainOK s -> ZCacheOKB C cget s c ->
  var < length (s_v2l s) -> nlevels s < fuel ->
  exists L, nth_error (s_v2l s) var = Some L /\
    zresult_okB C cget s (znot_var gt C cget cadd fuel s c var)
      (pbin ZDiff (pall (nlevels s) 0) (pvar (nlevels s) L)).
Proof.
  intros fuel s c var B Hc O Hv Hf.
  destruct (nth_error (s_v2l s) var) as [L|] eqn:Ev; [|apply nth_error_None in Ev; lia].
  exists L. split; [reflexivity|]. rewrite <- znot_var_g_seq.
  apply (znot_var_g_ok fresh_id fresh_id_alloc_ok gt C cget cadd Hlossy); assumption.
Qed.

End ZNotVar.
