(** * C19 — the ledger theorems (part 4: ref / unref, INVALID propagation, results, release) *)

From Coq Require Import List Bool Arith NArith Lia Permutation FMapPositive.
From OxiVerif Require Import Base.ListFacts DD.Sem DD.Table DD.TableExtra DD.TableProofs
  Ffi.Spec Ffi.Ledger Ffi.LedgerProofs Ffi.LedgerStep Ffi.LedgerThms.
Import ListNotations.

(** ** ref / unref change the count of exactly that function by one *)
Theorem ref_effect : forall st d f h st' r,
  lookup f (st_funs st) = Some h -> step st (CRef d f) = Done (st', r) ->
  r = RetH h /\
  st_funs st' = (d, h) :: st_funs st /\
  r_funs (st_rs st') = handle_tabs h ++ r_funs (st_rs st) /\
  r_mrc (st_rs st') = length (handle_tabs h) + r_mrc (st_rs st) /\
  st_mgrs st' = st_mgrs st /\ st_subs st' = st_subs st.
Proof.
  intros st d f h st' r Hl H. unfold step in H; cbv zeta in H. rewrite Hl in H.
  destruct (fresh_f st d); [|discriminate H]. destruct h as [|t]; simpl in H.
  - inversion H; subst. simpl. repeat split; reflexivity.
  - destruct (mem t (r_funs (st_rs st))); [|discriminate H]. inversion H; subst. simpl. repeat split; reflexivity.
Qed.

Theorem unref_effect : forall st f h st' r,
  balanced st -> lookup f (st_funs st) = Some h -> step st (CUnref f) = Done (st', r) ->
  st_funs st' = remove_slot f (st_funs st) /\
  Permutation (r_funs (st_rs st)) (handle_tabs h ++ r_funs (st_rs st')) /\
  r_mrc (st_rs st) = length (handle_tabs h) + r_mrc (st_rs st') /\
  st_mgrs st' = st_mgrs st /\ st_subs st' = st_subs st.
Proof.
  intros st f h st' r B Hl H. unfold step in H; cbv zeta in H. rewrite Hl in H.
  destruct h as [|t]; simpl in H.
  - inversion H; subst. simpl. repeat split; try reflexivity.
  - pose proof (bal_live _ _ _ _ _ _ B Hl) as Hin.
    destruct (fun_drop_ok _ _ _ _ _ B Hin) as [Hd Hnz]. rewrite Hd in H. inversion H; subst. simpl.
    repeat split; try reflexivity; [apply remove1_perm, Hin | lia].
Qed.

(** per function: the count of [t] drops by one for the released handle, all others stay *)
Corollary unref_counts : forall st f t st' r u,
  balanced st -> lookup f (st_funs st) = Some (HVal t) -> step st (CUnref f) = Done (st', r) ->
  count_occ tt_eq_dec (r_funs (st_rs st)) u
  = (if tt_eq_dec t u then 1 else 0) + count_occ tt_eq_dec (r_funs (st_rs st')) u.
Proof.
  intros st f t st' r u B Hl H. destruct (unref_effect _ _ _ _ _ B Hl H) as [_ [Hp _]].
  rewrite (Permutation_count_occ tt_eq_dec) in Hp. rewrite (Hp u). simpl.
  destruct (tt_eq_dec t u); reflexivity.
Qed.

Theorem mgr_ref_effect : forall st d m st' r,
  step st (CMgrRef d m) = Done (st', r) ->
  st_mgrs st' = d :: st_mgrs st /\ r_mrc (st_rs st') = S (r_mrc (st_rs st)) /\
  r_funs (st_rs st') = r_funs (st_rs st) /\ st_funs st' = st_funs st /\ st_subs st' = st_subs st.
Proof.
  intros st d m st' r H. unfold step in H; cbv zeta in H.
  destruct (has_mgr st m && fresh_m st d); [|discriminate H]. inversion H; subst. simpl. repeat split; reflexivity.
Qed.

Theorem mgr_unref_effect : forall st m st' r,
  step st (CMgrUnref m) = Done (st', r) ->
  st_mgrs st' = remove_nat m (st_mgrs st) /\ r_mrc (st_rs st) = S (r_mrc (st_rs st')) /\
  r_funs (st_rs st') = r_funs (st_rs st) /\ st_funs st' = st_funs st /\ st_subs st' = st_subs st.
Proof.
  intros st m st' r H. unfold step in H; cbv zeta in H.
  destruct (has_mgr st m); [|discriminate H]. unfold mref_drop in H.
  destruct (r_mrc (st_rs st)) as [|k] eqn:E; [discriminate H|]. inversion H; subst. simpl. repeat split; reflexivity.
Qed.

Theorem containing_effect : forall st d f st' r,
  step st (CContaining d f) = Done (st', r) ->
  st_mgrs st' = d :: st_mgrs st /\ r_mrc (st_rs st') = S (r_mrc (st_rs st)) /\
  r_funs (st_rs st') = r_funs (st_rs st) /\ st_funs st' = st_funs st.
Proof.
  intros st d f st' r H. unfold step in H; cbv zeta in H.
  destruct (lookup f (st_funs st)) as [[|t]|]; try discriminate H.
  destruct (fresh_m st d); [|discriminate H]. destruct (mem t (r_funs (st_rs st))); [|discriminate H].
  inversion H; subst. simpl. repeat split; reflexivity.
Qed.

(** ** an INVALID operand yields INVALID and changes nothing on the Rust side *)
Definition operands (c : call) : list nat :=
  match c with
  | COp1 _ _ a _ => [a]
  | COp2 _ _ a b _ => [a; b]
  | COp3 _ _ a b c _ => [a; b; c]
  | CCofactors _ _ a => [a]
  | CCofactor _ _ a => [a]
  | CSubstitute _ a _ _ => [a]
  | _ => []
  end.

Definition all_invalid_ret (r : ret) : Prop :=
  match r with RetH h => h = HInv | RetHH h1 h2 => h1 = HInv /\ h2 = HInv | _ => False end.

Theorem invalid_propagates : forall st c st' r a,
  In a (operands c) -> lookup a (st_funs st) = Some HInv -> step st c = Done (st', r) ->
  all_invalid_ret r /\ st_rs st' = st_rs st /\ st_mgrs st' = st_mgrs st.
Proof.
  intros st c st' r a Hin Hl H. destruct c; simpl in Hin; try contradiction; unfold step in H; cbv zeta in H.
  - (* COp1 *)
    destruct Hin as [E|[]]; subst a0. rewrite Hl in H. brh H. simpl in H. inversion H; subst. simpl. auto.
  - (* COp2 *)
    destruct (lookup a0 (st_funs st)) as [ha|] eqn:Ea; [|discriminate H].
    destruct (lookup b (st_funs st)) as [hb|] eqn:Eb; [|discriminate H].
    brh H. unfold c_op2 in H.
    destruct Hin as [E|[E|[]]]; subst a.
    + rewrite Hl in Ea. inversion Ea; subst ha. simpl in H. inversion H; subst. simpl. auto.
    + rewrite Hl in Eb. inversion Eb; subst hb. destruct (c_get ha); simpl in H; inversion H; subst; simpl; auto.
  - (* COp3 *)
    destruct (lookup a0 (st_funs st)) as [ha|] eqn:Ea; [|discriminate H].
    destruct (lookup b (st_funs st)) as [hb|] eqn:Eb; [|discriminate H].
    destruct (lookup c (st_funs st)) as [hc|] eqn:Ec; [|discriminate H].
    brh H. unfold c_op3 in H.
    destruct Hin as [E|[E|[E|[]]]]; subst a.
    + rewrite Hl in Ea. inversion Ea; subst ha. simpl in H. inversion H; subst. simpl. auto.
    + rewrite Hl in Eb. inversion Eb; subst hb. destruct (c_get ha); simpl in H; inversion H; subst; simpl; auto.
    + rewrite Hl in Ec. inversion Ec; subst hc.
      destruct (c_get ha); [destruct (c_get hb)|]; simpl in H; inversion H; subst; simpl; auto.
  - (* CCofactors *)
    destruct Hin as [E|[]]; subst a0. rewrite Hl in H. brh H. simpl in H. inversion H; subst. simpl. auto.
  - (* CCofactor *)
    destruct Hin as [E|[]]; subst a0. rewrite Hl in H. brh H. simpl in H. inversion H; subst. simpl. auto.
  - (* CSubstitute *)
    destruct Hin as [E|[]]; subst a0. rewrite Hl in H. brh H. destruct s as [si|].
    + brh H. simpl in H. inversion H; subst. simpl. auto.
    + inversion H; subst. simpl. auto.
Qed.

(** [oxidd_zbdd_make_node]: an invalid [var] or [hi] gives INVALID and consumes nothing; an
    invalid [lo] gives INVALID and consumes [hi] (the wrapper took it over before looking at [lo]) *)
Theorem make_node_invalid : forall st d var hi lo oom st' r hv hh hl,
  lookup var (st_funs st) = Some hv -> lookup hi (st_funs st) = Some hh -> lookup lo (st_funs st) = Some hl ->
  hv = HInv \/ hh = HInv \/ hl = HInv ->
  step st (CMakeNode d var hi lo oom) = Done (st', r) ->
  r = RetH HInv /\
  ((hv = HInv \/ hh = HInv) -> st_rs st' = st_rs st /\ st_funs st' = (d, HInv) :: st_funs st).
Proof.
  intros st d var hi lo oom st' r hv hh hl Ev Eh El Hinv H. unfold step in H; cbv zeta in H.
  rewrite Ev, Eh, El in H. destruct (st_kind st); try discriminate H. brh H.
  destruct hv as [|tv]; simpl in H.
  { inversion H; subst. split; [reflexivity|]. intros _. split; reflexivity. }
  destruct hh as [|th]; simpl in H.
  { inversion H; subst. split; [reflexivity|]. intros _. split; reflexivity. }
  destruct hl as [|tl]; simpl in H.
  - brh H. inversion H; subst. split; [reflexivity|]. intros [E|E]; discriminate E.
  - destruct Hinv as [E|[E|E]]; discriminate E.
Qed.

(** ** the table of a returned handle is the Rust API / spec-layer result *)
Theorem ffi_equiv_op1 : forall st o d a ta st' r,
  lookup a (st_funs st) = Some (HVal ta) -> step st (COp1 o d a false) = Done (st', r) ->
  r = RetH (HVal (op1_res (st_nv st) o ta)) /\
  lookup d (st_funs st') = Some (HVal (op1_res (st_nv st) o ta)).
Proof.
  intros st o d a ta st' r Ea H. unfold step in H; cbv zeta in H. rewrite Ea in H. brh H.
  simpl in H. inversion H; subst. simpl. rewrite Nat.eqb_refl. split; reflexivity.
Qed.

Theorem ffi_equiv_op2 : forall st o d a b ta tb st' r,
  lookup a (st_funs st) = Some (HVal ta) -> lookup b (st_funs st) = Some (HVal tb) ->
  step st (COp2 o d a b false) = Done (st', r) ->
  r = RetH (HVal (op2_res (st_nv st) o ta tb)) /\
  lookup d (st_funs st') = Some (HVal (op2_res (st_nv st) o ta tb)).
Proof.
  intros st o d a b ta tb st' r Ea Eb H. unfold step in H; cbv zeta in H. rewrite Ea, Eb in H. brh H.
  simpl in H. inversion H; subst. simpl. rewrite Nat.eqb_refl. split; reflexivity.
Qed.

Theorem ffi_equiv_op3 : forall st o d a b c ta tb tc st' r,
  lookup a (st_funs st) = Some (HVal ta) -> lookup b (st_funs st) = Some (HVal tb) ->
  lookup c (st_funs st) = Some (HVal tc) ->
  step st (COp3 o d a b c false) = Done (st', r) ->
  r = RetH (HVal (op3_res (st_nv st) o ta tb tc)) /\
  lookup d (st_funs st') = Some (HVal (op3_res (st_nv st) o ta tb tc)).
Proof.
  intros st o d a b c ta tb tc st' r Ea Eb Ec H. unfold step in H; cbv zeta in H. rewrite Ea, Eb, Ec in H. brh H.
  simpl in H. inversion H; subst. simpl. rewrite Nat.eqb_refl. split; reflexivity.
Qed.

Theorem ffi_equiv_op0 : forall st o d m st' r,
  step st (COp0 o d m false) = Done (st', r) ->
  r = RetH (HVal (rapi (st_nv st) (op0_rop o) [])).
Proof.
  intros st o d m st' r H. unfold step in H; cbv zeta in H. brh H. brh H.
  assert (E : match o with O0False | O0True | O0Empty | O0Base => false | _ => false end = false)
    by (destruct o; reflexivity).
  rewrite E in H. simpl in H. inversion H; subst. reflexivity.
Qed.

(** the connectives, at the level of Boolean functions: for every assignment [x] the handle
    returned by [oxidd_*_and] etc. evaluates to the connective of its operands' values *)
Theorem ffi_equiv_bin : forall st o d a b ta tb st' r,
  lookup a (st_funs st) = Some (HVal ta) -> lookup b (st_funs st) = Some (HVal tb) ->
  step st (COp2 (O2Bin o) d a b false) = Done (st', r) ->
  exists tr, r = RetH (HVal tr) /\
    forall x, fn (st_nv st) tr x = eval_bop o (fn (st_nv st) ta x) (fn (st_nv st) tb x).
Proof.
  intros st o d a b ta tb st' r Ea Eb H. destruct (ffi_equiv_op2 _ _ _ _ _ _ _ _ _ Ea Eb H) as [Hr _].
  eexists. split; [exact Hr|]. intros x. simpl op2_res. apply rapi_bin.
Qed.

Theorem ffi_equiv_not : forall st d a ta st' r,
  lookup a (st_funs st) = Some (HVal ta) -> step st (COp1 O1Not d a false) = Done (st', r) ->
  exists tr, r = RetH (HVal tr) /\ forall x, fn (st_nv st) tr x = negb (fn (st_nv st) ta x).
Proof.
  intros st d a ta st' r Ea H. destruct (ffi_equiv_op1 _ _ _ _ _ _ _ Ea H) as [Hr _].
  eexists. split; [exact Hr|]. intros x. simpl op1_res. apply rapi_not.
Qed.

Theorem ffi_equiv_ite : forall st d a b c ta tb tc st' r,
  lookup a (st_funs st) = Some (HVal ta) -> lookup b (st_funs st) = Some (HVal tb) ->
  lookup c (st_funs st) = Some (HVal tc) ->
  step st (COp3 O3Ite d a b c false) = Done (st', r) ->
  exists tr, r = RetH (HVal tr) /\
    forall x, fn (st_nv st) tr x = if fn (st_nv st) ta x then fn (st_nv st) tb x else fn (st_nv st) tc x.
Proof.
  intros st d a b c ta tb tc st' r Ea Eb Ec H. destruct (ffi_equiv_op3 _ _ _ _ _ _ _ _ _ _ _ Ea Eb Ec H) as [Hr _].
  eexists. split; [exact Hr|]. intros x. simpl op3_res. apply rapi_ite.
Qed.

(** quantifiers, restriction: the spec-layer function of DD/Sem.v on the cut-down assignment *)
Theorem ffi_equiv_quant : forall st q d a b ta tb st' r,
  lookup a (st_funs st) = Some (HVal ta) -> lookup b (st_funs st) = Some (HVal tb) ->
  step st (COp2 (O2Quant q) d a b false) = Done (st', r) ->
  exists tr, r = RetH (HVal tr) /\
    forall x, fn (st_nv st) tr x
      = quant_of q (support (st_nv st) (fn (st_nv st) tb)) (fn (st_nv st) ta) (trunc (st_nv st) x).
Proof.
  intros st q d a b ta tb st' r Ea Eb H. destruct (ffi_equiv_op2 _ _ _ _ _ _ _ _ _ Ea Eb H) as [Hr _].
  eexists. split; [exact Hr|]. intros x. simpl op2_res. apply rapi_quant.
Qed.

(** ** everything released *)
Definition no_valid_handle (st : state) : Prop :=
  (forall i h, In (i, h) (st_funs st) -> h = HInv) /\
  (forall s sb, In (s, sb) (st_subs st) -> sb_reps sb = []).

(** after any legal sequence: if the client holds no valid function handle any more (all
    unref'ed, substitutions freed or empty), the Rust side holds no function reference, the
    manager's count is the number of manager handles; when those are released too it is 0 *)
Theorem ledger_zero : forall k cs st,
  run (init k) cs = Done st -> no_valid_handle st ->
  r_funs (st_rs st) = [] /\ r_mrc (st_rs st) = length (st_mgrs st) /\
  (st_mgrs st = [] -> st_rs st = mkR 0 []).
Proof.
  intros k cs st H [Hf Hs]. pose proof (run_bal cs (init k) st (bal_init k) H) as [Hp Hc].
  assert (E1 : funs_tabs (st_funs st) = []).
  { unfold funs_tabs. apply flat_map_nil. intros [i h] Hin. rewrite (Hf i h Hin). reflexivity. }
  assert (E2 : subs_tabs (st_subs st) = []).
  { unfold subs_tabs. apply flat_map_nil. intros [s sb] Hin. apply (Hs s sb Hin). }
  rewrite E1, E2 in Hp. simpl in Hp. apply Permutation_sym, Permutation_nil in Hp.
  rewrite Hp in Hc. simpl in Hc. split; [exact Hp|]. split; [lia|].
  intros Em. rewrite Em in Hc. simpl in Hc. destruct (st_rs st) as [mrc fs]. simpl in *. subst. reflexivity.
Qed.

(** connection to the reference-count model of the node store (C05): a manager state whose
    counts are exact, on which a collection has completed, and which has no external handle
    (and no internal owner) stores no inner node *)
Theorem no_handles_no_nodes : forall s,
  WF s -> rc_exact_b s [] = true -> no_dead_b s = true -> s_handles s = [] ->
  forall id, find_node s id = None.
Proof.
  intros s W Hrc Hnd Hh id. destruct (find_node s id) as [nd|] eqn:E; [|reflexivity]. exfalso.
  pose proof (no_dead_reachable s [] W Hrc Hnd id nd E) as R.
  assert (Hroots : handle_refs s ++ map eref [] = []).
  { unfold handle_refs. rewrite Hh. reflexivity. }
  rewrite Hroots in R. clear -R.
  remember (RN id) as x. clear Heqx. induction R as [r Hin | pid pnd e R IH]; [contradiction | exact IH].
Qed.

(** ** cofactors, substitution, make_node *)
Theorem ffi_equiv_cofactors : forall st dt de a t st' r,
  lookup a (st_funs st) = Some (HVal t) -> step st (CCofactors dt de a) = Done (st', r) ->
  r = match cofactors_of (st_kind st) (st_nv st) (st_l2v st) t with
      | Some (ct, ce) => RetHH (HVal ct) (HVal ce)
      | None => RetHH HInv HInv
      end.
Proof.
  intros st dt de a t st' r Ea H. unfold step in H; cbv zeta in H. rewrite Ea in H. brh H. simpl in H.
  destruct (cofactors_of (st_kind st) (st_nv st) (st_l2v st) t) as [[ct ce]|]; inversion H; reflexivity.
Qed.

Theorem ffi_equiv_cofactor : forall st hi d a t st' r,
  lookup a (st_funs st) = Some (HVal t) -> step st (CCofactor hi d a) = Done (st', r) ->
  r = match cofactors_of (st_kind st) (st_nv st) (st_l2v st) t with
      | Some (ct, ce) => RetH (HVal (if hi then ct else ce))
      | None => RetH HInv
      end.
Proof.
  intros st hi d a t st' r Ea H. unfold step in H; cbv zeta in H. rewrite Ea in H. brh H. simpl in H.
  destruct (cofactors_of (st_kind st) (st_nv st) (st_l2v st) t) as [[ct ce]|]; inversion H; reflexivity.
Qed.

(** the children returned are the Shannon cofactors w.r.t. the top variable (BDD / BCDD), resp.
    subset1 / subset0 w.r.t. the top variable (ZBDD) *)
Theorem cofactors_of_spec : forall k n l2v t ct ce,
  cofactors_of k n l2v t = Some (ct, ce) ->
  exists v, top_var n k l2v (fn n t) = Some v /\
    (forall x, fn n ct x = child_s k (fn n t) v true (trunc n x)) /\
    (forall x, fn n ce x = child_s k (fn n t) v false (trunc n x)).
Proof.
  intros k n l2v t ct ce H. unfold cofactors_of in H.
  destruct (top_var n k l2v (fn n t)) as [v|]; [|discriminate H]. inversion H; subst.
  exists v. split; [reflexivity|]. split; intros x; apply fn_tab.
Qed.

Theorem ffi_equiv_substitute : forall st d a s sb ta st' r,
  lookup a (st_funs st) = Some (HVal ta) -> lookup s (st_subs st) = Some sb ->
  step st (CSubstitute d a (Some s) false) = Done (st', r) ->
  exists tr, r = RetH (HVal tr) /\
    forall x, fn (st_nv st) tr x
      = subst_s (combine (sb_vars sb) (map (fn (st_nv st)) (sb_reps sb))) (fn (st_nv st) ta) (trunc (st_nv st) x).
Proof.
  intros st d a s sb ta st' r Ea Es H. unfold step in H; cbv zeta in H. rewrite Ea, Es in H. brh H.
  simpl in H. inversion H; subst. eexists. split; [reflexivity|]. intros x. apply rapi_subst.
Qed.

Theorem ffi_equiv_make_node : forall st d var hi lo tv th tl st' r,
  lookup var (st_funs st) = Some (HVal tv) -> lookup hi (st_funs st) = Some (HVal th) ->
  lookup lo (st_funs st) = Some (HVal tl) ->
  step st (CMakeNode d var hi lo false) = Done (st', r) ->
  exists v tr, singleton_var (st_nv st) tv = Some v /\ r = RetH (HVal tr) /\
    (forall x, fn (st_nv st) tr x = mknode_s v (fn (st_nv st) th) (fn (st_nv st) tl) (trunc (st_nv st) x)) /\
    (* hi and lo have left the client's ownership, var has not *)
    st_funs st' = (d, HVal tr) :: remove_slot lo (remove_slot hi (st_funs st)).
Proof.
  intros st d var hi lo tv th tl st' r Ev Eh El H. unfold step in H; cbv zeta in H.
  rewrite Ev, Eh, El in H. destruct (st_kind st); try discriminate H. brh H.
  simpl c_get in H. cbv iota in H.
  destruct (singleton_var (st_nv st) tv) as [v|]; [|discriminate H]. brh H. brh H. brh H.
  simpl in H. inversion H; subst; clear H. exists v. eexists. split; [reflexivity|]. split; [reflexivity|].
  split; [intros x; apply rapi_spec; reflexivity | reflexivity].
Qed.
