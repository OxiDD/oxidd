(** * C19 — the ledger theorems (part 1: ownership)

    [bal]: the Rust side and the client's ledger agree —
      - the bag of live [Function] values is exactly the bag of valid handles the
        client owns (in handle slots and inside substitution objects),
      - the manager's strong count is the number of manager handles plus the
        number of live [Function] values.
    It holds initially, every documented-legal call preserves it
    ([step_bal]), and under it no call makes the wrapper code drop a dead value
    or touch a destroyed manager ([step_no_ub]). *)

From Coq Require Import List Bool Arith NArith Lia Permutation.
From OxiVerif Require Import DD.Sem Ffi.Spec Ffi.Ledger.
Import ListNotations.

(** ** bags *)
Lemma tt_eqb_eq : forall a b, tt_eqb a b = true <-> a = b.
Proof. intros a b. unfold tt_eqb. destruct (tt_eq_dec a b); split; intros; congruence. Qed.

Lemma mem_In : forall t l, mem t l = true <-> In t l.
Proof.
  intros t l. unfold mem. rewrite existsb_exists. split.
  - intros [x [Hin He]]. apply tt_eqb_eq in He. subst. exact Hin.
  - intros Hin. exists t. split; [exact Hin | apply tt_eqb_eq; reflexivity].
Qed.

Lemma remove1_perm : forall t l, In t l -> Permutation l (t :: remove1 t l).
Proof.
  intros t l. induction l as [|x l IH]; intros Hin; [contradiction|].
  simpl. destruct (tt_eq_dec x t) as [E|N].
  - subst. apply Permutation_refl.
  - destruct Hin as [E|Hin]; [congruence|].
    apply perm_trans with (x :: t :: remove1 t l); [apply perm_skip, IH, Hin | apply perm_swap].
Qed.

Lemma lookup_perm : forall A i (l : list (nat * A)) x,
  lookup i l = Some x -> Permutation l ((i, x) :: remove_slot i l).
Proof.
  intros A i l. induction l as [|[j y] l IH]; intros x H; simpl in H; [discriminate|].
  simpl. destruct (Nat.eqb_spec j i) as [E|N].
  - inversion H; subst. apply Permutation_refl.
  - apply perm_trans with ((j, y) :: (i, x) :: remove_slot i l); [apply perm_skip, IH, H | apply perm_swap].
Qed.

Lemma lookup_In : forall A i (l : list (nat * A)) x, lookup i l = Some x -> In (i, x) l.
Proof.
  intros A i l x H. apply (Permutation_in (l:=(i, x) :: remove_slot i l)).
  - apply Permutation_sym, lookup_perm, H.
  - left; reflexivity.
Qed.

Lemma remove_nat_length : forall m l,
  existsb (Nat.eqb m) l = true -> length l = S (length (remove_nat m l)).
Proof.
  intros m l. induction l as [|x l IH]; simpl; intros H; [discriminate|].
  rewrite (Nat.eqb_sym x m). destruct (Nat.eqb m x); [reflexivity|].
  simpl in H. simpl. rewrite IH by exact H. reflexivity.
Qed.

(** ** the invariant, on the four components it talks about *)
Definition funs_tabs (fs : list (nat * handle)) : list tt := flat_map (fun p => handle_tabs (snd p)) fs.
Definition subs_tabs (ss : list (nat * subst_obj)) : list tt := flat_map (fun p => sb_reps (snd p)) ss.

Definition bal (rs : rside) (ms : list nat) (fs : list (nat * handle)) (ss : list (nat * subst_obj)) : Prop :=
  Permutation (r_funs rs) (funs_tabs fs ++ subs_tabs ss) /\
  r_mrc rs = length ms + length (r_funs rs).

Definition balanced (st : state) : Prop := bal (st_rs st) (st_mgrs st) (st_funs st) (st_subs st).

Lemma ledger_funs_eq : forall st, ledger_funs st = funs_tabs (st_funs st) ++ subs_tabs (st_subs st).
Proof. reflexivity. Qed.

(** effect of obtaining / giving up a handle on the Rust side *)
Definition push_handle (h : handle) (rs : rside) : rside :=
  match h with HVal t => fun_new t rs | HInv => rs end.

Lemma bal_init : forall k, balanced (init k).
Proof. intros k. split; simpl; [apply perm_nil | reflexivity]. Qed.

Lemma bal_push : forall rs ms fs ss d h,
  bal rs ms fs ss -> bal (push_handle h rs) ms ((d, h) :: fs) ss.
Proof.
  intros rs ms fs ss d h [Hp Hc]. destruct h as [|t]; simpl.
  - split; assumption.
  - split; simpl; [apply perm_skip, Hp | rewrite Hc; lia].
Qed.

Lemma funs_tabs_In : forall fs i t, In (i, HVal t) fs -> In t (funs_tabs fs).
Proof.
  intros fs i t Hin. unfold funs_tabs. apply in_flat_map. exists (i, HVal t). split; [exact Hin | left; reflexivity].
Qed.

Lemma bal_live : forall rs ms fs ss i t,
  bal rs ms fs ss -> lookup i fs = Some (HVal t) -> In t (r_funs rs).
Proof.
  intros rs ms fs ss i t [Hp _] H. apply (Permutation_in (l:=funs_tabs fs ++ subs_tabs ss)).
  - apply Permutation_sym, Hp.
  - apply in_or_app. left. eapply funs_tabs_In, lookup_In, H.
Qed.

Lemma bal_live_mem : forall rs ms fs ss i t,
  bal rs ms fs ss -> lookup i fs = Some (HVal t) -> mem t (r_funs rs) = true.
Proof. intros. apply mem_In. eapply bal_live; eauto. Qed.

Lemma fun_drop_ok : forall rs ms fs ss t,
  bal rs ms fs ss -> In t (r_funs rs) ->
  fun_drop t rs = Some (mkR (pred (r_mrc rs)) (remove1 t (r_funs rs))) /\ r_mrc rs <> 0.
Proof.
  intros rs ms fs ss t [Hp Hc] Hin. unfold fun_drop.
  rewrite (proj2 (mem_In _ _) Hin).
  destruct (r_funs rs) as [|x l] eqn:E; [contradiction|].
  rewrite Hc. simpl length. rewrite Nat.add_succ_r. simpl. split; [reflexivity | lia].
Qed.

(** giving up a function handle slot *)
Lemma bal_pop : forall rs ms fs ss i h,
  bal rs ms fs ss -> lookup i fs = Some h ->
  exists rs',
    (match h with HVal t => fun_drop t rs | HInv => Some rs end) = Some rs' /\
    bal rs' ms (remove_slot i fs) ss.
Proof.
  intros rs ms fs ss i h B H. destruct h as [|t].
  - exists rs. split; [reflexivity|]. destruct B as [Hp Hc]. split; [|exact Hc].
    apply perm_trans with (1 := Hp). apply Permutation_app_tail.
    unfold funs_tabs. apply perm_trans with (flat_map (fun p => handle_tabs (snd p)) ((i, HInv) :: remove_slot i fs)).
    + apply Permutation_flat_map, lookup_perm, H.
    + simpl. apply Permutation_refl.
  - pose proof (bal_live _ _ _ _ _ _ B H) as Hin.
    destruct (fun_drop_ok _ _ _ _ _ B Hin) as [Hd Hnz]. rewrite Hd. eexists. split; [reflexivity|].
    destruct B as [Hp Hc]. split; simpl.
    + assert (Hp2 : Permutation (t :: remove1 t (r_funs rs)) (t :: (funs_tabs (remove_slot i fs) ++ subs_tabs ss))).
      { apply perm_trans with (r_funs rs); [apply Permutation_sym, remove1_perm, Hin|].
        apply perm_trans with (1 := Hp).
        change (t :: funs_tabs (remove_slot i fs) ++ subs_tabs ss)
          with ((funs_tabs ((i, HVal t) :: remove_slot i fs)) ++ subs_tabs ss).
        apply Permutation_app_tail. unfold funs_tabs. apply Permutation_flat_map, lookup_perm, H. }
      apply Permutation_cons_inv in Hp2. exact Hp2.
    + pose proof (Permutation_length (remove1_perm _ _ Hin)) as Hl. simpl in Hl. lia.
Qed.

(** manager handles *)
Lemma bal_mgr_push : forall rs ms fs ss d,
  bal rs ms fs ss -> bal (mref_clone rs) (d :: ms) fs ss.
Proof. intros rs ms fs ss d [Hp Hc]. split; simpl; [exact Hp | lia]. Qed.

Lemma bal_mgr_pop : forall rs ms fs ss m,
  bal rs ms fs ss -> existsb (Nat.eqb m) ms = true ->
  exists rs', mref_drop rs = Some rs' /\ bal rs' (remove_nat m ms) fs ss.
Proof.
  intros rs ms fs ss m [Hp Hc] Hm. pose proof (remove_nat_length _ _ Hm) as Hl.
  unfold mref_drop. destruct (r_mrc rs) as [|k] eqn:E; [lia|].
  eexists. split; [reflexivity|]. split; simpl; [exact Hp | lia].
Qed.

Lemma bal_mrc_pos : forall rs ms fs ss m,
  bal rs ms fs ss -> existsb (Nat.eqb m) ms = true -> r_mrc rs <> 0.
Proof. intros rs ms fs ss m [_ Hc] Hm. pose proof (remove_nat_length _ _ Hm). lia. Qed.

(** the wrappers [op1] / [op2] / [op3]: the result is pushed, nothing else changes *)
Lemma api_push : forall oom t rs rs' x, api oom t rs = (rs', x) -> rs' = push_handle (c_into x) rs.
Proof. intros oom t rs rs' x H. unfold api in H. destruct oom; inversion H; reflexivity. Qed.

Lemma c_op1_push : forall oom res f rs rs' h, c_op1 oom res f rs = (rs', h) -> rs' = push_handle h rs.
Proof.
  intros oom res f rs rs' h H. unfold c_op1 in H. destruct (c_get f); [|inversion H; reflexivity].
  destruct (api oom (res t) rs) as [s x] eqn:E. inversion H; subst. eapply api_push, E.
Qed.

(** [c_op2] on a valid first operand is [c_op1] on the second, [c_op3] is [c_op2] on the rest *)
Lemma c_op2_push : forall oom res a b rs rs' h, c_op2 oom res a b rs = (rs', h) -> rs' = push_handle h rs.
Proof.
  intros oom res a b rs rs' h H. unfold c_op2 in H.
  destruct (c_get a) as [x|]; [exact (c_op1_push oom (res x) b rs rs' h H) | inversion H; reflexivity].
Qed.

Lemma c_op3_push : forall oom res a b c rs rs' h, c_op3 oom res a b c rs = (rs', h) -> rs' = push_handle h rs.
Proof.
  intros oom res a b c rs rs' h H. unfold c_op3 in H.
  destruct (c_get a) as [x|]; [exact (c_op2_push oom (res x) b c rs rs' h H) | inversion H; reflexivity].
Qed.

(** substitution objects *)
Lemma bal_subs_perm : forall rs ms fs ss ss',
  bal rs ms fs ss -> Permutation (subs_tabs ss) (subs_tabs ss') -> bal rs ms fs ss'.
Proof.
  intros rs ms fs ss ss' [Hp Hc] H. split; [|exact Hc].
  apply perm_trans with (1 := Hp). apply Permutation_app_head, H.
Qed.

Lemma subs_tabs_lookup : forall ss s sb,
  lookup s ss = Some sb -> Permutation (subs_tabs ss) (sb_reps sb ++ subs_tabs (remove_slot s ss)).
Proof.
  intros ss s sb H. unfold subs_tabs.
  apply perm_trans with (flat_map (fun p => sb_reps (snd p)) ((s, sb) :: remove_slot s ss)).
  - apply Permutation_flat_map, lookup_perm, H.
  - apply Permutation_refl.
Qed.

Lemma bal_subst_add : forall rs ms fs ss s sb v t,
  bal rs ms fs ss -> lookup s ss = Some sb ->
  bal (fun_new t rs) ms fs ((s, mkSub (sb_vars sb ++ [v]) (sb_reps sb ++ [t]) false) :: remove_slot s ss).
Proof.
  intros rs ms fs ss s sb v t [Hp Hc] H. split; simpl; [|rewrite Hc; lia].
  apply perm_trans with (t :: (funs_tabs fs ++ subs_tabs ss)); [apply perm_skip, Hp|].
  apply perm_trans with (funs_tabs fs ++ t :: subs_tabs ss); [apply Permutation_middle|].
  apply Permutation_app_head. unfold subs_tabs at 2. simpl. fold (subs_tabs (remove_slot s ss)).
  rewrite <- app_assoc. simpl.
  apply perm_trans with (t :: sb_reps sb ++ subs_tabs (remove_slot s ss)); [apply perm_skip, subs_tabs_lookup, H|].
  apply Permutation_middle.
Qed.

Lemma bal_subst_used : forall rs ms fs ss s sb,
  bal rs ms fs ss -> lookup s ss = Some sb ->
  bal rs ms fs ((s, mkSub (sb_vars sb) (sb_reps sb) true) :: remove_slot s ss).
Proof.
  intros rs ms fs ss s sb B H. eapply bal_subs_perm; [exact B|].
  apply perm_trans with (1 := subs_tabs_lookup _ _ _ H). apply Permutation_refl.
Qed.

(** dropping a list of live values one after the other *)
Lemma bal_funs_drop : forall ts rs (ms : list nat) fs rest,
  Permutation (r_funs rs) (funs_tabs fs ++ ts ++ rest) ->
  r_mrc rs = length ms + length (r_funs rs) ->
  exists rs', funs_drop ts rs = Some rs' /\
    Permutation (r_funs rs') (funs_tabs fs ++ rest) /\ r_mrc rs' = length ms + length (r_funs rs').
Proof.
  induction ts as [|t ts IH]; intros rs ms fs rest Hp Hc; simpl.
  - exists rs. auto.
  - assert (Hin : In t (r_funs rs)).
    { apply (Permutation_in (l:=funs_tabs fs ++ (t :: ts) ++ rest)); [apply Permutation_sym, Hp|].
      apply in_or_app. right. left. reflexivity. }
    unfold fun_drop. rewrite (proj2 (mem_In _ _) Hin).
    destruct (r_mrc rs) as [|k] eqn:E.
    { destruct (r_funs rs); [contradiction | simpl in Hc; lia]. }
    apply IH; simpl.
    + assert (H2 : Permutation (t :: remove1 t (r_funs rs)) (t :: (funs_tabs fs ++ ts ++ rest))).
      { apply perm_trans with (r_funs rs); [apply Permutation_sym, remove1_perm, Hin|].
        apply perm_trans with (1 := Hp). apply Permutation_sym, Permutation_middle. }
      apply Permutation_cons_inv in H2. exact H2.
    + pose proof (Permutation_length (remove1_perm _ _ Hin)) as Hl. simpl in Hl. lia.
Qed.

Lemma bal_subst_free : forall rs ms fs ss s sb,
  bal rs ms fs ss -> lookup s ss = Some sb ->
  exists rs', funs_drop (sb_reps sb) rs = Some rs' /\ bal rs' ms fs (remove_slot s ss).
Proof.
  intros rs ms fs ss s sb [Hp Hc] H.
  destruct (bal_funs_drop (sb_reps sb) rs ms fs (subs_tabs (remove_slot s ss))) as [rs' [Hd [Hp' Hc']]].
  - apply perm_trans with (1 := Hp). apply Permutation_app_head, subs_tabs_lookup, H.
  - exact Hc.
  - exists rs'. split; [exact Hd | split; assumption].
Qed.

(** import: one owned handle per root *)
Lemma bal_import : forall ds ts rs ms fs ss rs' fs',
  bal rs ms fs ss -> import_funs ds ts rs fs = (rs', fs') -> bal rs' ms fs' ss.
Proof.
  induction ds as [|d ds IH]; intros ts rs ms fs ss rs' fs' B H; simpl in H.
  - inversion H; subst. exact B.
  - destruct ts as [|t ts]; [inversion H; subst; exact B|].
    eapply IH; [|exact H]. apply (bal_push rs ms fs ss d (HVal t)), B.
Qed.

(** add_vars: every table is re-indexed by the same injective map *)
Lemma funs_tabs_map : forall g fs,
  funs_tabs (map (fun p => (fst p, map_handle g (snd p))) fs) = map g (funs_tabs fs).
Proof.
  intros g fs. unfold funs_tabs. induction fs as [|[i h] fs IH]; simpl; [reflexivity|].
  rewrite IH, map_app. destruct h; reflexivity.
Qed.

Lemma subs_tabs_map : forall g ss,
  subs_tabs (map (fun p => (fst p, mkSub (sb_vars (snd p)) (map g (sb_reps (snd p))) (sb_used (snd p)))) ss)
  = map g (subs_tabs ss).
Proof.
  intros g ss. unfold subs_tabs. induction ss as [|[i sb] ss IH]; simpl; [reflexivity|].
  rewrite IH, map_app. reflexivity.
Qed.

Lemma bal_add_vars : forall st cnt, balanced st -> balanced (add_vars st cnt).
Proof.
  intros st cnt [Hp Hc]. unfold balanced, add_vars, bal. simpl.
  rewrite funs_tabs_map, subs_tabs_map, <- map_app, map_length. split; [apply Permutation_map, Hp | exact Hc].
Qed.
