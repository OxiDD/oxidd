(** * C18p proofs, part 7: [acyclic_b] is sound -- a gate list that passes the test has
      no cyclic dependency; every problem accepted with [check_acyclic] is acyclic *)
From Coq Require Import List NArith ZArith Bool Arith Lia Relations.
From OxiVerif Require Import IO.Aiger IO.AigerParse IO.MarkingProofs IO.AigerSecProofs IO.AigerSoundProofs.
Import ListNotations.
Open Scope N_scope.

(** a gate marked after a round: all gates it reads were marked before the round *)
Lemma mark_round_reads gates m g : nth g (mark_round gates m) false = true ->
  forall g', reads gates g g' -> nth g' m false = true.
Proof.
  intros H g' (x & s & Hx & Hr). rewrite (nth_mark_round _ _ _ _ Hx) in H.
  apply andb_true_iff in H. destruct H as [H1 H2].
  destruct Hr as [E|E]; [rewrite E in H1; cbn in H1|rewrite E in H2; cbn in H2];
    rewrite Nat2N.id in *; assumption.
Qed.

(** soundness of the acyclicity test *)
Theorem acyclic_b_sound gates : acyclic_b gates = true -> forall g, ~ clos_trans nat (reads gates) g g.
Proof.
  apply (all_marked_sound (length gates) (reads gates) (mark_round gates) (fun k => mark_rounds k gates)).
  - reflexivity.
  - reflexivity.
  - apply mark_rounds_length, map_length.
  - intros g g' (x & s & Hx & _). apply nth_error_Some. congruence.
  - intros m g g' H Hr. exact (mark_round_reads gates m g H g' Hr).
  - apply nth_map_false.
Qed.

(** every problem the reader accepts with [check_acyclic = true] -- ASCII or binary --
    has no gate that depends on itself *)
Theorem parse_aiger_acyclic bs p : parse_aiger true bs = POk p ->
  forall g, ~ clos_trans nat (reads (ap_ands p)) g g.
Proof.
  intros H. unfold parse_aiger in H.
  destruct (p_header bs) as [[h r0]| |] eqn:Eh; cbn [pbind] in H; try discriminate.
  destruct (h_bin h) eqn:Eb.
  - (* binary: topological order *)
    destruct (parse_bin_body h r0) as [[b r1]| |] eqn:E0; cbn [pbind] in H; try discriminate.
    destruct (symbol_table h r1) as [[syms r2]| |]; cbn [pbind] in H; try discriminate.
    destruct (comment_or_eof r2); [|discriminate]. inversion H; subst. cbn [ap_ands].
    apply topo_no_cycle. exact (bin_body_topo _ _ _ _ _ Eh Eb E0).
  - (* ASCII: the test ran *)
    destruct (parse_ascii_body true h r0) as [[b r1]| |] eqn:E0; cbn [pbind] in H; try discriminate.
    destruct (symbol_table h r1) as [[syms r2]| |]; cbn [pbind] in H; try discriminate.
    destruct (comment_or_eof r2); [|discriminate]. inversion H; subst. cbn [ap_ands].
    apply acyclic_b_sound.
    unfold parse_ascii_body in E0.
    repeat match type of E0 with
           | pbind ?r _ = POk _ => destruct r as [[? ?]| |]; cbn [pbind] in E0; try discriminate E0
           | match ?x with _ => _ end = POk _ => destruct x eqn:?; try discriminate E0
           end.
    inversion E0; subst. cbn [b_ands] in *.
    match goal with
    | Hc : true && negb ?a = false |- _ => cbn [andb] in Hc; apply negb_false_iff in Hc; exact Hc
    end.
Qed.
