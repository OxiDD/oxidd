(** * C18p proofs, part 1: the lexical layer of the AIGER reader model
      (decimal numbers, blanks, line ends, the 7-bit codec, single lines) *)
From Coq Require Import List NArith ZArith Bool Arith Lia.
From OxiVerif Require Import IO.Aiger IO.AigerParse.
Import ListNotations.
Open Scope N_scope.


Arguments N.add : simpl never.
Arguments N.sub : simpl never.
Arguments N.mul : simpl never.
Arguments N.div : simpl never.
Arguments N.modulo : simpl never.
Arguments N.pow : simpl never.
Arguments N.shiftl : simpl never.
Arguments N.shiftr : simpl never.
Arguments N.land : simpl never.
Arguments N.lor : simpl never.
Arguments N.ltb : simpl never.
Arguments N.leb : simpl never.
Arguments N.eqb : simpl never.
Arguments N.odd : simpl never.

(* ------------------------------------------------------------------ *)
(** ** Character classes *)

Lemma is_digit_range b : is_digit b = true <-> 48 <= b /\ b <= 57.
Proof. unfold is_digit. rewrite andb_true_iff, !N.leb_le. reflexivity. Qed.

Lemma is_sp_iff b : is_sp b = true <-> b = 32 \/ b = 9.
Proof. unfold is_sp. rewrite orb_true_iff, !N.eqb_eq. reflexivity. Qed.

Lemma digit_not_sp b : is_digit b = true -> is_sp b = false.
Proof.
  intros H. apply is_digit_range in H. destruct (is_sp b) eqn:E; [|reflexivity].
  apply is_sp_iff in E. lia.
Qed.

(** what may follow a number: the end, or a byte that is not a digit *)
Definition nodigit (r : list N) : Prop :=
  match r with [] => True | b :: _ => is_digit b = false end.

(** what may follow a blank run: the end, or a byte that is not a blank *)
Definition nosp (r : list N) : Prop :=
  match r with [] => True | b :: _ => is_sp b = false end.

Lemma nodigit_nl r : nodigit (nl ++ r).
Proof. reflexivity. Qed.
Lemma nodigit_sp r : nodigit (sp ++ r).
Proof. reflexivity. Qed.
Lemma nosp_nl r : nosp (nl ++ r).
Proof. reflexivity. Qed.


(* ------------------------------------------------------------------ *)
(** ** Decimal printing and [p_u64] *)

Definition digits (s : list N) : Prop := Forall (fun b => is_digit b = true) s.

Lemma digit_mod10 n : is_digit (48 + n mod 10) = true.
Proof. apply is_digit_range. pose proof (N.mod_lt n 10 ltac:(discriminate)).
  generalize dependent (n mod 10). intros d Hd. lia.
Qed.

Lemma dec_go_digits : forall fuel n acc, digits acc -> digits (dec_go fuel n acc).
Proof.
  induction fuel as [|f IH]; intros n acc H; cbn [dec_go]; [exact H|].
  pose proof (digit_mod10 n) as Hd.
  destruct (n <? 10); [constructor; assumption|]. apply IH. constructor; assumption.
Qed.

Lemma dec_digits n : digits (dec n).
Proof. apply dec_go_digits. constructor. Qed.

Lemma dec_go_nonempty : forall fuel n acc, acc <> [] -> dec_go fuel n acc <> [].
Proof.
  induction fuel as [|f IH]; intros n acc H; cbn [dec_go]; [exact H|].
  destruct (n <? 10); [discriminate|]. apply IH. discriminate.
Qed.

Lemma dec_nonempty n : dec n <> [].
Proof.
  unfold dec. cbn [dec_go]. destruct (n <? 10); [discriminate|]. apply dec_go_nonempty. discriminate.
Qed.

Lemma dec_head n : exists c r, dec n = c :: r /\ is_digit c = true.
Proof.
  pose proof (dec_digits n) as H. pose proof (dec_nonempty n) as Hne.
  destruct (dec n) as [|c r]; [contradiction|]. exists c, r. split; [reflexivity|].
  inversion H; assumption.
Qed.

Lemma dec_nosp n r : nosp (dec n ++ r).
Proof.
  destruct (dec_head n) as (c & t & -> & Hc). cbn. apply digit_not_sp. exact Hc.
Qed.

Lemma digits_val_app : forall ds rest acc, digits ds -> nodigit rest ->
  digits_val (ds ++ rest) acc = (fst (digits_val ds acc), rest).
Proof.
  induction ds as [|c ds IH]; intros rest acc Hd Hr.
  - cbn. destruct rest as [|b r]; [reflexivity|]. cbn in Hr. cbn. rewrite Hr. reflexivity.
  - inversion Hd; subst. cbn [app digits_val]. rewrite H1. apply IH; assumption.
Qed.

Lemma digits_val_digits_nil : forall ds acc, digits ds -> snd (digits_val ds acc) = [].
Proof.
  induction ds as [|c ds IH]; intros acc Hd; [reflexivity|].
  inversion Hd; subst. cbn [digits_val]. rewrite H1. apply IH; assumption.
Qed.

Lemma dec_go_val : forall fuel n acc, digits acc ->
  n < 10 ^ N.of_nat fuel -> fuel <> O ->
  fst (digits_val (dec_go fuel n acc) 0) = fst (digits_val acc n).
Proof.
  induction fuel as [|f IH]; intros n acc Ha Hn Hf; [contradiction|].
  cbn [dec_go].
  pose proof (digit_mod10 n) as Hd.
  destruct (N.ltb_spec n 10).
  - cbn [digits_val]. rewrite Hd. f_equal. f_equal. rewrite N.mod_small by assumption. lia.
  - assert (f <> O).
    { intros ->. cbn in Hn. lia. }
    rewrite IH; [| constructor; assumption | | assumption].
    + cbn [digits_val]. rewrite Hd. f_equal. f_equal.
      rewrite (N.add_comm 48), N.add_sub, N.mul_comm. symmetry. apply N.div_mod'.
    + rewrite Nat2N.inj_succ, N.pow_succ_r' in Hn. apply N.div_lt_upper_bound; [discriminate|exact Hn].
Qed.

Lemma digits_val_dec n : fst (digits_val (dec n) 0) = n.
Proof.
  unfold dec. rewrite dec_go_val; [reflexivity|constructor| |discriminate].
  rewrite Nat2N.inj_succ, N2Nat.id, N.pow_succ_r'.
  destruct (N.eq_dec n 0) as [->|Hne]; [reflexivity|].
  assert (n < 2 ^ N.size n) by apply N.size_gt.
  assert (2 ^ N.size n <= 10 ^ N.size n) by (apply N.pow_le_mono_l; lia). lia.
Qed.

Lemma p_u64_dec n rest : n < two64 -> nodigit rest -> p_u64 (dec n ++ rest) = POk (n, rest).
Proof.
  intros Hn Hr. unfold p_u64.
  destruct (dec_head n) as (c & t & E & Hc).
  rewrite digits_val_app by (auto using dec_digits). rewrite digits_val_dec.
  rewrite E. cbn [app]. rewrite Hc.
  destruct (N.ltb_spec n two64); [reflexivity|lia].
Qed.

Lemma p_usize_dec n rest : n <= max_capacity -> nodigit rest -> p_usize (dec n ++ rest) = POk (n, rest).
Proof.
  intros Hn Hr. unfold p_usize. rewrite p_u64_dec; [|unfold max_capacity, two64 in *; lia|assumption].
  cbn [pbind]. destruct (N.ltb_spec max_capacity n); [lia|reflexivity].
Qed.

Ltac side := first [assumption | lia | reflexivity | apply dec_nosp].

(* ------------------------------------------------------------------ *)
(** ** Blanks and line ends *)

Lemma space0_nosp r : nosp r -> space0 r = r.
Proof. destruct r as [|b r]; [reflexivity|]. cbn. intros ->. reflexivity. Qed.

Lemma space1_sp r : nosp r -> space1 (sp ++ r) = POk r.
Proof. intros H. cbn. rewrite space0_nosp by assumption. reflexivity. Qed.

Lemma space1_nl r : space1 (nl ++ r) = PErr.
Proof. reflexivity. Qed.

Lemma eol_or_eof_nl r : eol_or_eof (nl ++ r) = POk r.
Proof. reflexivity. Qed.

Lemma sp_usize_dec n rest : n <= max_capacity -> nodigit rest ->
  sp_usize (sp ++ dec n ++ rest) = POk (n, rest).
Proof.
  intros Hn Hr. unfold sp_usize. rewrite space1_sp by apply dec_nosp. cbn [pbind].
  apply p_usize_dec; assumption.
Qed.

(* ------------------------------------------------------------------ *)
(** ** Lines *)

Lemma p_literal_dec vars x rest : x < two64 -> x / 2 <= vars -> nodigit rest ->
  p_literal vars (dec x ++ rest) = POk (x, rest).
Proof.
  intros Hx Hv Hr. unfold p_literal. rewrite p_u64_dec by assumption. cbn [pbind].
  destruct (N.ltb_spec vars (x / 2)); [lia|reflexivity].
Qed.

Lemma literal_line_dec vars x rest : x < two64 -> x / 2 <= vars ->
  literal_line vars (dec x ++ nl ++ rest) = POk (x, rest).
Proof.
  intros Hx Hv. unfold literal_line. rewrite p_literal_dec by side.
  cbn [pbind]. rewrite eol_or_eof_nl. reflexivity.
Qed.

Lemma usize_line_dec n rest : n <= max_capacity ->
  usize_line (dec n ++ nl ++ rest) = POk (n, rest).
Proof.
  intros Hn. unfold usize_line. rewrite p_usize_dec by side.
  cbn [pbind]. rewrite eol_or_eof_nl. reflexivity.
Qed.

Lemma input_line_dec vars x rest : x < two64 -> x / 2 <= vars -> N.odd x = false ->
  input_line vars (dec x ++ nl ++ rest) = POk (x, rest).
Proof.
  intros Hx Hv Ho. unfold input_line. rewrite p_literal_dec by side.
  cbn [pbind]. rewrite Ho, eol_or_eof_nl. reflexivity.
Qed.

(** the optional reset value as [print_reset] writes it *)
Lemma latch_init_ext_print own r rest : 2 <= own -> own < two64 ->
  latch_init_ext own (print_reset own r ++ nl ++ rest) = POk (r, nl ++ rest).
Proof.
  intros H2 Hown. unfold latch_init_ext.
  destruct r as [[|]|]; cbn [print_reset].
  - rewrite <- app_assoc, space1_sp by apply dec_nosp.
    rewrite p_u64_dec; [reflexivity | unfold two64; lia | reflexivity].
  - cbn [app]. rewrite space1_nl. reflexivity.
  - rewrite <- app_assoc, space1_sp by apply dec_nosp.
    rewrite p_u64_dec by side.
    destruct (N.eqb_spec own 0); [lia|]. destruct (N.eqb_spec own 1); [lia|].
    rewrite N.eqb_refl. reflexivity.
Qed.

Lemma nodigit_reset own r rest : nodigit (print_reset own r ++ nl ++ rest).
Proof. destruct r as [[|]|]; reflexivity. Qed.

Lemma latch_line_print vars own x r rest :
  2 <= own -> own < two64 -> own / 2 <= vars -> N.odd own = false -> x < two64 -> x / 2 <= vars ->
  latch_line vars (dec own ++ sp ++ dec x ++ print_reset own r ++ nl ++ rest) = POk ((own, x, r), rest).
Proof.
  intros. unfold latch_line.
  rewrite p_literal_dec by side. cbn [pbind].
  rewrite space1_sp by apply dec_nosp. cbn [pbind].
  rewrite p_literal_dec; [| assumption | assumption | apply nodigit_reset].
  cbn [pbind]. rewrite H2. rewrite latch_init_ext_print by assumption. cbn [pbind].
  rewrite eol_or_eof_nl. reflexivity.
Qed.

Lemma bin_latch_print vars fl i x r rest :
  (i + fl) * 2 < two64 -> 2 <= (i + fl) * 2 -> x < two64 -> x / 2 <= vars ->
  bin_latch vars fl i (dec x ++ print_reset ((i + fl) * 2) r ++ nl ++ rest) = POk ((x, r), rest).
Proof.
  intros. unfold bin_latch.
  rewrite p_literal_dec; [| assumption | assumption | apply nodigit_reset].
  cbn [pbind]. rewrite latch_init_ext_print by assumption. cbn [pbind].
  rewrite eol_or_eof_nl. reflexivity.
Qed.

Lemma and_line_print vars lhs a b rest :
  lhs < two64 -> lhs / 2 <= vars -> N.odd lhs = false ->
  a < two64 -> a / 2 <= vars -> b < two64 -> b / 2 <= vars ->
  and_line vars (dec lhs ++ sp ++ dec a ++ sp ++ dec b ++ nl ++ rest) = POk ((lhs, a, b), rest).
Proof.
  intros. unfold and_line.
  rewrite p_literal_dec by side. cbn [pbind].
  rewrite space1_sp by apply dec_nosp. cbn [pbind].
  rewrite p_literal_dec by side. cbn [pbind].
  rewrite space1_sp by apply dec_nosp. cbn [pbind].
  rewrite p_literal_dec by side. cbn [pbind].
  rewrite eol_or_eof_nl. cbn [pbind]. rewrite H1. reflexivity.
Qed.

(* ------------------------------------------------------------------ *)
(** ** The 7-bit codec: [usize_7bit] reads back what [encode7] writes *)

Lemma land_127_lt x : N.land x 127 < 128.
Proof.
  change 127 with (N.ones 7). rewrite N.land_ones. apply N.mod_lt. discriminate.
Qed.

Lemma split7 x : N.lor (N.land x 127) (N.shiftl (N.shiftr x 7) 7) = x.
Proof.
  apply N.bits_inj. intros k.
  rewrite N.lor_spec. change 127 with (N.ones 7). rewrite N.land_spec.
  destruct (N.ltb_spec k 7).
  - rewrite N.ones_spec_low by assumption. rewrite N.shiftl_spec_low by assumption.
    rewrite andb_true_r, orb_false_r. reflexivity.
  - rewrite N.ones_spec_high by assumption. rewrite N.shiftl_spec_high' by assumption.
    rewrite N.shiftr_spec'. rewrite andb_false_r. cbn [orb]. f_equal. lia.
Qed.

Lemma cont_byte x : N.land (N.lor (N.land x 127) 128) 127 = N.land x 127
                 /\ N.land (N.lor (N.land x 127) 128) 128 = 128.
Proof.
  split; apply N.bits_inj; intros k; rewrite !N.land_spec, N.lor_spec, N.land_spec.
  - change 127 with (N.ones 7). destruct (N.ltb_spec k 7).
    + rewrite N.ones_spec_low by assumption. rewrite !andb_true_r.
      replace (N.testbit 128 k) with false; [apply orb_false_r|].
      change 128 with (2 ^ 7). rewrite N.pow2_bits_false by lia. reflexivity.
    + rewrite N.ones_spec_high by assumption. rewrite !andb_false_r. reflexivity.
  - change 128 with (2 ^ 7). destruct (N.eq_dec k 7) as [->|Hk].
    + rewrite N.pow2_bits_true. rewrite orb_true_r. reflexivity.
    + rewrite N.pow2_bits_false by lia. rewrite !andb_false_r. reflexivity.
Qed.

Lemma shiftl_lt_two64 d x s : d <= x -> x < 2 ^ (64 - s) -> s < 64 -> N.shiftl d s < two64.
Proof.
  intros Hd Hx Hs. rewrite N.shiftl_mul_pow2.
  assert (2 ^ (64 - s) * 2 ^ s = two64).
  { rewrite <- N.pow_add_r. replace (64 - s + s) with 64 by lia. reflexivity. }
  assert (0 < 2 ^ s) by (apply N.neq_0_lt_0, N.pow_nonzero; discriminate).
  nia.
Qed.

Lemma land_mask_small v : v < two64 -> N.land v (two64 - 1) = v.
Proof.
  intros H. change (two64 - 1) with (N.ones 64). rewrite N.land_ones.
  apply N.mod_small. exact H.
Qed.

Lemma usize_7bit_from_encode : forall fuel x rest shift val,
  x < 2 ^ N.of_nat fuel -> shift < 64 -> x < 2 ^ (64 - shift) ->
  usize_7bit_from (encode7_fuel fuel x ++ rest) shift val
  = POk (N.lor val (N.shiftl x shift), rest).
Proof.
  induction fuel as [|f IH]; intros x rest shift val Hf Hs Hx.
  - cbn in Hf. assert (x = 0) by lia. subst x.
    cbn [encode7_fuel app usize_7bit_from].
    rewrite N.mod_small by assumption.
    change (N.land 0 127) with 0. change (N.land 0 128) with 0. rewrite N.shiftl_0_l.
    change (N.land 0 (two64 - 1)) with 0. rewrite N.eqb_refl. reflexivity.
  - cbn [encode7_fuel]. destruct (N.ltb_spec x 128) as [Hlt|Hge].
    + cbn [app usize_7bit_from]. rewrite N.mod_small by assumption.
      assert (E127 : N.land x 127 = x).
      { change 127 with (N.ones 7). rewrite N.land_ones. apply N.mod_small. exact Hlt. }
      assert (E128 : N.land x 128 = 0).
      { apply N.bits_inj. intros k. rewrite N.land_spec, N.bits_0.
        change 128 with (2 ^ 7). destruct (N.eq_dec k 7) as [->|Hk].
        - rewrite N.pow2_bits_true, andb_true_r.
          apply N.bits_above_log2. destruct (N.eq_dec x 0) as [->|]; [reflexivity|].
          apply N.log2_lt_pow2; lia.
        - rewrite N.pow2_bits_false by lia. apply andb_false_r. }
      rewrite E127, E128, N.eqb_refl.
      rewrite land_mask_small by (eapply shiftl_lt_two64; eauto; lia). reflexivity.
    + cbn [app usize_7bit_from]. rewrite N.mod_small by assumption.
      destruct (cont_byte x) as [E127 E128]. rewrite E127, E128.
      change (128 =? 0) with false. cbn match.
      assert (H7 : 7 < 64 - shift).
      { destruct (N.ltb_spec 7 (64 - shift)); [assumption|].
        assert (2 ^ (64 - shift) <= 2 ^ 7) by (apply N.pow_le_mono_r; lia).
        change (2 ^ 7) with 128 in *. lia. }
      rewrite land_mask_small.
      2:{ eapply shiftl_lt_two64; [| exact Hx | exact Hs]. pose proof (land_127_lt x). lia. }
      rewrite IH.
      * f_equal. f_equal. rewrite <- N.lor_assoc. f_equal.
        rewrite <- (split7 x) at 3. rewrite N.shiftl_lor. f_equal.
        rewrite N.shiftl_shiftl. f_equal. lia.
      * rewrite N.shiftr_div_pow2. change (2 ^ 7) with 128.
        rewrite Nat2N.inj_succ, N.pow_succ_r' in Hf.
        destruct f as [|f'].
        { cbn in Hf. lia. }
        rewrite Nat2N.inj_succ, N.pow_succ_r' in *.
        assert (x / 128 <= x / 2) by (apply N.div_le_compat_l; lia).
        assert (x / 2 < 2 * 2 ^ N.of_nat f') by (apply N.div_lt_upper_bound; lia).
        lia.
      * lia.
      * rewrite N.shiftr_div_pow2. change (2 ^ 7) with 128.
        apply N.div_lt_upper_bound; [discriminate|].
        replace (64 - shift) with (7 + (64 - (shift + 7))) in Hx by lia.
        rewrite N.pow_add_r in Hx. exact Hx.
Qed.

Theorem usize_7bit_encode7 x rest : x < two64 -> usize_7bit (encode7 x ++ rest) = POk (x, rest).
Proof.
  intros Hx. unfold usize_7bit, encode7. rewrite usize_7bit_from_encode.
  - rewrite N.shiftl_0_r, N.lor_0_l. reflexivity.
  - rewrite N2Nat.id. destruct (N.eq_dec x 0) as [->|]; [reflexivity|]. apply N.size_gt.
  - lia.
  - exact Hx.
Qed.

Lemma bin_and_print i a b rest :
  i * 2 < two64 -> a < i * 2 -> b <= a ->
  bin_and i (encode_gate (i * 2) a b ++ rest) = POk ((a, b), rest).
Proof.
  intros Hi Ha Hb. unfold bin_and, encode_gate, deltas.
  rewrite <- app_assoc. rewrite usize_7bit_encode7 by lia. cbn [pbind].
  rewrite usize_7bit_encode7 by lia. cbn [pbind].
  unfold and_gate_bin.
  destruct (N.ltb_spec (i * 2) (i * 2 - a)); [lia|].
  destruct (N.eqb_spec (i * 2 - a) 0); [lia|].
  destruct (N.ltb_spec (i * 2 - (i * 2 - a)) (a - b)); [lia|].
  cbn [orb]. do 3 f_equal; lia.
Qed.
