(** * C18p proofs, part 4: round trips and the ASCII / binary equivalence

    For every well-formed problem [p] ([wf_b p = true]: variables numbered
    inputs, latches, AND gates in order, i.e. what the binary format can
    express), the model reader gives back [p] from both printed forms:
      [parse_aiger ca (print_aag p) = POk p]  and  [parse_aiger ca (print_aig p) = POk p],
    hence the two files parse to the same problem. *)
From Coq Require Import List NArith ZArith Bool Arith Lia.
From OxiVerif Require Import IO.Aiger IO.AigerParse IO.AigerLexProofs IO.AigerSecProofs IO.AigerSymProofs.
Import ListNotations.
Open Scope N_scope.

(* ------------------------------------------------------------------ *)
(** ** Well-formedness as a proposition *)

Definition nvars (p : aproblem) : N := ap_inputs p + lenN (ap_latches p).
Definition nands (p : aproblem) : N := lenN (ap_ands p).

Record wf (p : aproblem) : Prop := mkWf {
  wf_res : length (ap_resets p) = length (ap_latches p);
  wf_cap : nvars p + nands p <= max_capacity;
  wf_nout : lenN (ap_outputs p) <= max_capacity;
  wf_nbad : lenN (ap_bad p) <= max_capacity;
  wf_ninv : lenN (ap_inv p) <= max_capacity;
  wf_njust : lenN (ap_justice p) <= max_capacity;
  wf_nfair : lenN (ap_fair p) <= max_capacity;
  wf_jlen : Forall (fun js => lenN js <= max_capacity) (ap_justice p);
  wf_lat : Forall (lit_ok (nvars p) (nands p)) (ap_latches p);
  wf_out : Forall (lit_ok (nvars p) (nands p)) (ap_outputs p);
  wf_bad : Forall (lit_ok (nvars p) (nands p)) (ap_bad p);
  wf_inv : Forall (lit_ok (nvars p) (nands p)) (ap_inv p);
  wf_just : Forall (Forall (lit_ok (nvars p) (nands p))) (ap_justice p);
  wf_fair : Forall (lit_ok (nvars p) (nands p)) (ap_fair p);
  wf_ands : forall k g, nth_error (ap_ands p) k = Some g ->
                        and_ok_b (nvars p) (nands p) (1 + nvars p) (N.of_nat k) g = true;
  wf_map : ap_map p = default_map (1 + nvars p) (nands p);
  wf_nin : names_ok_b (nvars p) (sy_in (ap_syms p)) = true;
  wf_nmo : names_ok_b (lenN (ap_outputs p)) (sy_out (ap_syms p)) = true;
  wf_nmb : names_ok_b (lenN (ap_bad p)) (sy_bad (ap_syms p)) = true;
  wf_nmc : names_ok_b (lenN (ap_inv p)) (sy_inv (ap_syms p)) = true;
  wf_nmj : names_ok_b (lenN (ap_justice p)) (sy_just (ap_syms p)) = true;
  wf_nmf : names_ok_b (lenN (ap_fair p)) (sy_fair (ap_syms p)) = true }.

Lemma alit_eqb_eq x y : alit_eqb x y = true -> x = y.
Proof.
  destruct x as [a|a k|a g|a], y as [b|b j|b h|b]; cbn; try discriminate; intros H;
    repeat match goal with
           | H : _ && _ = true |- _ => apply andb_true_iff in H; destruct H
           end;
    repeat match goal with
           | H : Bool.eqb _ _ = true |- _ => apply eqb_prop in H
           | H : (_ =? _) = true |- _ => apply N.eqb_eq in H
           end; subst; reflexivity.
Qed.

Lemma alits_eqb_eq : forall a b, alits_eqb a b = true -> a = b.
Proof.
  induction a as [|x a IH]; intros [|y b]; cbn; try discriminate; [reflexivity|].
  rewrite andb_true_iff. intros [H1 H2]. apply alit_eqb_eq in H1. apply IH in H2. subst. reflexivity.
Qed.

Lemma alit_eqb_refl x : alit_eqb x x = true.
Proof. destruct x as [a|a k|a g|a]; cbn; rewrite ?eqb_reflx, ?N.eqb_refl; reflexivity. Qed.

Lemma alits_eqb_refl : forall a, alits_eqb a a = true.
Proof. induction a; cbn; [reflexivity|]. rewrite alit_eqb_refl. assumption. Qed.

Lemma forallb_Forall {A} (f : A -> bool) l : forallb f l = true -> Forall (fun x => f x = true) l.
Proof. intros H. apply Forall_forall. apply forallb_forall. exact H. Qed.

Lemma forallb_i_nth {A} (f : N -> A -> bool) : forall l i, forallb_i f i l = true ->
  forall k x, nth_error l k = Some x -> f (i + N.of_nat k) x = true.
Proof.
  induction l as [|y l IH]; intros i H k x Hk; [destruct k; discriminate|].
  cbn in H. apply andb_true_iff in H. destruct H as [H1 H2]. destruct k as [|k].
  - inversion Hk; subst. replace (i + N.of_nat 0) with i by lia. exact H1.
  - replace (i + N.of_nat (S k)) with (i + 1 + N.of_nat k) by lia. apply (IH _ H2). exact Hk.
Qed.

Theorem wf_b_wf p : wf_b p = true -> wf p.
Proof.
  unfold wf_b.
  intros [[[[[[[[[[[[[[[[[[[[[H1 H2]%andb_prop H3]%andb_prop H4]%andb_prop H5]%andb_prop H6]%andb_prop
    H7]%andb_prop H8]%andb_prop H9]%andb_prop H10]%andb_prop H11]%andb_prop H12]%andb_prop H13]%andb_prop
    H14]%andb_prop H15]%andb_prop H16]%andb_prop H17]%andb_prop H18]%andb_prop H19]%andb_prop H20]%andb_prop
    H21]%andb_prop H22]%andb_prop.
  fold (nvars p) in *. fold (nands p) in *. unfold p_first_and in *. fold (nvars p) in *.
  replace (1 + ap_inputs p + lenN (ap_latches p)) with (1 + nvars p) in * by (unfold nvars; lia).
  apply N.eqb_eq in H1. apply N.leb_le in H2, H3, H4, H5, H6, H7.
  constructor; try assumption; try (apply forallb_Forall; assumption).
  - unfold lenN in H1. lia.
  - apply forallb_Forall in H8. eapply Forall_impl; [|exact H8]. intros a Ha. apply N.leb_le. exact Ha.
  - apply forallb_Forall in H13. eapply Forall_impl; [|exact H13]. intros a Ha.
    apply forallb_Forall. exact Ha.
  - intros k g Hk. apply (forallb_i_nth _ _ _ H15 k g Hk).
  - apply alits_eqb_eq. exact H16.
Qed.

(* ------------------------------------------------------------------ *)
(** ** Header *)

Definition header_of (bin : bool) (p : aproblem) : aheader :=
  mkHeader bin (nvars p + nands p) (ap_inputs p) (lenN (ap_latches p)) (lenN (ap_outputs p)) (nands p)
           (lenN (ap_bad p)) (lenN (ap_inv p)) (lenN (ap_justice p)) (lenN (ap_fair p)).

Lemma p_format_print (bin : bool) r :
  p_format ([97; (if bin then 105 else 97); 103] ++ sp ++ r) = POk (bin, sp ++ r).
Proof. destruct bin; reflexivity. Qed.

Lemma opt_nums_nl k r : opt_nums k (nl ++ r) = ([], nl ++ r).
Proof. destruct k; reflexivity. Qed.

(** the optional counts B C J F, left out when all are zero *)
Lemma opt_nums_print b c j f r :
  b <= max_capacity -> c <= max_capacity -> j <= max_capacity -> f <= max_capacity ->
  exists o,
    opt_nums 4 ((if (b =? 0) && (c =? 0) && (j =? 0) && (f =? 0) then []
                 else sp ++ dec b ++ sp ++ dec c ++ sp ++ dec j ++ sp ++ dec f) ++ nl ++ r)
    = (o, nl ++ r) /\ nth 0 o 0 = b /\ nth 1 o 0 = c /\ nth 2 o 0 = j /\ nth 3 o 0 = f.
Proof.
  intros Hb Hc Hj Hf.
  destruct ((b =? 0) && (c =? 0) && (j =? 0) && (f =? 0)) eqn:Eopt.
  - rewrite !andb_true_iff, !N.eqb_eq in Eopt. destruct Eopt as [[[-> ->] ->] ->].
    exists []. cbn [app]. rewrite opt_nums_nl. auto.
  - exists [b; c; j; f]. rewrite <- !app_assoc. cbn [opt_nums].
    rewrite !sp_usize_dec by (try reflexivity; assumption). auto.
Qed.

Theorem p_header_print bin p rest : wf p ->
  p_header (print_header bin p ++ rest) = POk (header_of bin p, rest).
Proof.
  intros W. destruct W. unfold nvars, nands in *.
  unfold p_header, print_header. rewrite <- !app_assoc. rewrite p_format_print. cbn [pbind].
  do 4 (rewrite sp_usize_dec by (try reflexivity; lia); cbn [pbind]).
  rewrite sp_usize_dec; [|lia|destruct (_ && _); reflexivity]. cbn [pbind].
  destruct (opt_nums_print (lenN (ap_bad p)) (lenN (ap_inv p)) (lenN (ap_justice p)) (lenN (ap_fair p)) rest)
    as (o & -> & -> & -> & -> & ->); try assumption.
  rewrite eol_or_eof_nl. cbn [pbind]. fold (header_of bin p). unfold nvars, nands.
  destruct bin.
  - rewrite N.eqb_refl. reflexivity.
  - rewrite N.ltb_irrefl. reflexivity.
Qed.

(* ------------------------------------------------------------------ *)
(** ** Helpers for the bodies *)

Lemma map_fst_combine {A B} : forall (a : list A) (b : list B), length a = length b ->
  map fst (combine a b) = a.
Proof.
  induction a as [|x a IH]; intros [|y b] H; cbn in *; try discriminate; [reflexivity|].
  f_equal. apply IH. lia.
Qed.

Lemma map_snd_combine {A B} : forall (a : list A) (b : list B), length a = length b ->
  map snd (combine a b) = b.
Proof.
  induction a as [|x a IH]; intros [|y b] H; cbn in *; try discriminate; [reflexivity|].
  f_equal. apply IH. lia.
Qed.

Lemma map_id_in {A} (f : A -> A) l : (forall x, In x l -> f x = x) -> map f l = l.
Proof.
  induction l as [|y l IH]; intros H; cbn; [reflexivity|]. f_equal; [apply H; left; reflexivity|].
  apply IH. intros x Hx. apply H. right. exact Hx.
Qed.

Lemma existsb_none {A} (f : A -> bool) l : (forall x, In x l -> f x = false) -> existsb f l = false.
Proof.
  intros H. apply not_true_is_false. intros (x & Hx & E)%existsb_exists.
  rewrite (H x Hx) in E. discriminate.
Qed.

Lemma encode7_fuel_nonempty f x : encode7_fuel f x <> [].
Proof. destruct f; cbn; [discriminate|]. destruct (x <? 128); discriminate. Qed.

Lemma encode_gate_nonempty lhs a b : encode_gate lhs a b <> [].
Proof.
  unfold encode_gate, deltas, encode7. pose proof (encode7_fuel_nonempty (N.to_nat (N.size (lhs - a))) (lhs - a)).
  destruct (encode7_fuel _ (lhs - a)); [contradiction|discriminate].
Qed.

Section Bodies.
  Variable p : aproblem.
  Hypothesis W : wf p.

  Let nv := nvars p.
  Let na := nands p.
  Let fa := 1 + nv.
  Let a := aig_of_lit fa.

  Lemma fa_first_and : p_first_and p = fa.
  Proof. unfold p_first_and, fa, nv, nvars. lia. Qed.

  Lemma lit_ok_a l : lit_ok nv na l -> a l < two64 /\ a l / 2 <= nv + na.
  Proof. apply (aig_of_lit_bound nv na (wf_cap p W)). Qed.

  Lemma and_facts k g : nth_error (ap_ands p) k = Some g ->
    lit_ok nv na (fst g) /\ lit_ok nv na (snd g) /\
    a (fst g) < 2 * (fa + N.of_nat k) /\ a (snd g) <= a (fst g).
  Proof.
    intros Hk. pose proof (wf_ands p W k g Hk) as H. unfold and_ok_b in H.
    rewrite !andb_true_iff in H. destruct H as [[[H1 H2] H3] H4].
    apply N.ltb_lt in H3. apply N.leb_le in H4. auto.
  Qed.

  Lemma nands_bound k : (k < length (ap_ands p))%nat -> fa + N.of_nat k <= nv + na.
  Proof. unfold fa, na, nands, lenN. lia. Qed.

  Lemma latch_facts j x : nth_error (combine (ap_latches p) (ap_resets p)) j = Some x ->
    lit_ok nv na (fst x) /\ N.of_nat j < lenN (ap_latches p).
  Proof.
    intros Hj. split.
    - pose proof (wf_lat p W) as H. rewrite Forall_forall in H. apply H.
      apply nth_error_In in Hj. destruct x. eapply in_combine_l. exact Hj.
    - assert (j < length (combine (ap_latches p) (ap_resets p)))%nat by (apply nth_error_Some; congruence).
      rewrite combine_length in H. unfold lenN. lia.
  Qed.

  Lemma combine_lenN : lenN (combine (ap_latches p) (ap_resets p)) = lenN (ap_latches p).
  Proof. unfold lenN. rewrite combine_length, (wf_res p W). f_equal. lia. Qed.

  Section ReadBack.
    (** [ml] reads literal numbers back: [make_literal fa] in the binary branch,
        [map_lit] of the default map in the ASCII branch *)
    Variable ml : N -> alit.
    Hypothesis Hml : forall l, lit_ok nv na l -> ml (a l) = l.

    Lemma read_back_lits ls : Forall (lit_ok nv na) ls -> map ml (map a ls) = ls.
    Proof.
      intros H. rewrite map_map. apply map_id_in. intros x Hx. apply Hml.
      rewrite Forall_forall in H. auto.
    Qed.

    Lemma read_back_justice : map (map ml) (map (map a) (ap_justice p)) = ap_justice p.
    Proof.
      rewrite map_map. apply map_id_in. intros js Hjs. apply read_back_lits.
      pose proof (wf_just p W) as H. rewrite Forall_forall in H. auto.
    Qed.

    Lemma read_back_latches :
      map (fun x : alit * option bool => ml (a (fst x))) (combine (ap_latches p) (ap_resets p))
      = ap_latches p.
    Proof.
      rewrite <- (map_map fst (fun l => ml (a l))), map_fst_combine by (symmetry; apply (wf_res p W)).
      rewrite <- map_map. apply read_back_lits, (wf_lat p W).
    Qed.

    Lemma read_back_ands : map (fun g => (ml (a (fst g)), ml (a (snd g)))) (ap_ands p) = ap_ands p.
    Proof.
      apply map_id_in. intros g Hg. apply In_nth_error in Hg. destruct Hg as [k Hk].
      destruct (and_facts k g Hk) as (H1 & H2 & _). rewrite !Hml by assumption. destruct g; reflexivity.
    Qed.
  End ReadBack.

  Definition body_of : abody :=
    mkBody (ap_latches p) (ap_resets p) (ap_outputs p) (ap_bad p) (ap_inv p) (ap_justice p) (ap_fair p)
           (ap_ands p) (default_map fa na).

  (** *** binary *)

  Lemma bin_latches_print rest :
    collect_from (lenN (ap_latches p)) 0 (bin_latch (nv + na) (1 + ap_inputs p))
                 (print_latches false p ++ rest)
    = POk (map_i (fun (_ : N) x => (a (fst x), snd x)) 0 (combine (ap_latches p) (ap_resets p)), rest).
  Proof.
    unfold print_latches. rewrite fa_first_and.
    apply collect_from_print.
    - symmetry. apply combine_lenN.
    - intros k x. apply dec_app_nonempty.
    - intros j x r k Hj ->. destruct (latch_facts j x Hj) as [Hok Hlt].
      destruct (lit_ok_a _ Hok). unfold print_latch. cbn [app]. rewrite <- !app_assoc.
      replace (2 * (1 + ap_inputs p + (0 + N.of_nat j))) with ((0 + N.of_nat j + (1 + ap_inputs p)) * 2) by lia.
      pose proof (wf_cap p W). unfold nvars, max_capacity, two64 in *.
      apply bin_latch_print; try assumption; unfold two64; lia.
  Qed.

  Lemma bin_ands_print rest :
    collect_from na fa bin_and (flat_map_i (print_and_aig fa) 0 (ap_ands p) ++ rest)
    = POk (map_i (fun (_ : N) g => (a (fst g), a (snd g))) fa (ap_ands p), rest).
  Proof.
    set (pr := fun (i : N) (g : alit * alit) => encode_gate (i * 2) (a (fst g)) (a (snd g))).
    replace (flat_map_i (print_and_aig fa) 0 (ap_ands p)) with (flat_map_i pr fa (ap_ands p)).
    2:{ replace fa with (fa + 0) at 1 by lia. rewrite <- flat_map_i_shift.
        apply flat_map_i_ext. intros j x _. unfold pr, print_and_aig, a. f_equal. lia. }
    apply collect_from_print.
    - reflexivity.
    - intros k x. apply encode_gate_nonempty.
    - intros j g r k Hj ->. destruct (and_facts j g Hj) as (H1 & H2 & H3 & H4).
      assert (j < length (ap_ands p))%nat by (apply nth_error_Some; congruence).
      pose proof (nands_bound j H). pose proof (wf_cap p W). unfold max_capacity, two64 in *.
      unfold pr. apply bin_and_print; unfold two64; lia.
  Qed.

  Theorem parse_bin_body_print rest :
    parse_bin_body (header_of true p)
                   (print_latches false p ++ print_props p ++ flat_map_i (print_and_aig fa) 0 (ap_ands p) ++ rest)
    = POk (body_of, rest).
  Proof.
    destruct W. unfold parse_bin_body. cbn [header_of h_in h_lat h_vars h_and].
    fold nv na. rewrite bin_latches_print. cbn [pbind].
    rewrite (p_props_print nv na); try assumption; try reflexivity; [|apply fa_first_and].
    cbn [pbind]. fold fa.
    replace (1 + ap_inputs p + lenN (ap_latches p)) with fa by (unfold fa, nv, nvars; lia).
    rewrite bin_ands_print. cbn [pbind pr_out pr_bad pr_inv pr_just pr_fair].
    unfold body_of. fold a. do 3 f_equal; try (apply read_back_lits; [apply make_literal_aig_of_lit|assumption]).
    - rewrite map_map_i, map_i_const. cbn [fst]. apply read_back_latches, make_literal_aig_of_lit.
    - rewrite map_map_i, map_i_const. cbn [snd]. apply map_snd_combine. symmetry; assumption.
    - apply read_back_justice, make_literal_aig_of_lit.
    - rewrite map_map_i, map_i_const. cbn [fst snd]. apply read_back_ands, make_literal_aig_of_lit.
  Qed.
End Bodies.

(* ------------------------------------------------------------------ *)
(** ** ASCII body *)

Section AsciiBody.
  Variable p : aproblem.
  Hypothesis W : wf p.

  Let nv := nvars p.
  Let na := nands p.
  Let fa := 1 + nv.
  Let a := aig_of_lit fa.

  Definition input_lits : list N := map (fun k => 2 * (k + 1)) (seqN 0 (ap_inputs p)).

  Lemma ascii_inputs_print rest :
    collect (ap_inputs p) (input_line (nv + na))
            (flat_map (fun k => dec (2 * (k + 1)) ++ nl) (seqN 0 (ap_inputs p)) ++ rest)
    = POk (input_lits, rest).
  Proof.
    apply collect_print.
    - unfold lenN. rewrite seqN_length. lia.
    - intros x. apply dec_app_nonempty.
    - intros x r Hx. apply In_seqN in Hx. rewrite <- app_assoc.
      pose proof (wf_cap p W). unfold nv, na, nvars, max_capacity, two64 in *.
      apply input_line_dec; [unfold two64; lia | rewrite half_double; lia |].
      apply odd_double.
  Qed.

  Lemma ascii_latches_print rest :
    collect (lenN (ap_latches p)) (latch_line (nv + na)) (print_latches true p ++ rest)
    = POk (map_i (fun k x => (2 * (1 + ap_inputs p + k), a (fst x), snd x)) 0
                 (combine (ap_latches p) (ap_resets p)), rest).
  Proof.
    unfold print_latches. rewrite (fa_first_and p). fold nv fa.
    apply (collect_from_print (fun _ => latch_line (nv + na))).
    - symmetry. apply (combine_lenN p W).
    - intros k x. unfold print_latch. rewrite <- app_assoc. apply dec_app_nonempty.
    - intros j x r k Hj ->. destruct (latch_facts p W j x Hj) as [Hok Hlt].
      destruct (lit_ok_a p W _ Hok). unfold print_latch. rewrite <- !app_assoc.
      pose proof (wf_cap p W). unfold nv, na, nvars, max_capacity, two64 in *.
      apply latch_line_print; try assumption; try (unfold two64; lia);
        [rewrite half_double; lia|apply odd_double].
  Qed.

  Lemma ascii_ands_print rest :
    collect na (and_line (nv + na)) (flat_map_i (print_and_aag fa) 0 (ap_ands p) ++ rest)
    = POk (map_i (fun k g => (2 * (fa + k), a (fst g), a (snd g))) 0 (ap_ands p), rest).
  Proof.
    apply (collect_from_print (fun _ => and_line (nv + na))).
    - reflexivity.
    - intros k x. apply dec_app_nonempty.
    - intros j g r k Hj ->. destruct (and_facts p W j g Hj) as (H1 & H2 & H3 & H4).
      destruct (lit_ok_a p W _ H1). destruct (lit_ok_a p W _ H2).
      assert (Hlt : (j < length (ap_ands p))%nat) by (apply nth_error_Some; congruence).
      pose proof (nands_bound p j Hlt). pose proof (wf_cap p W).
      unfold print_and_aag. rewrite <- !app_assoc. fold a.
      unfold nv, na, fa, max_capacity, two64 in *.
      apply and_line_print; try assumption; try (unfold two64; lia);
        [rewrite half_double; lia|apply odd_double].
  Qed.

  Lemma topo_ands : topo (ap_ands p).
  Proof.
    intros k g Hk. destruct (and_facts p W k g Hk) as (H1 & H2 & H3 & H4). fold nv fa in H3, H4. fold a in H3, H4.
    assert (forall l s j, l = ALGate s j -> a l < 2 * (fa + N.of_nat k) -> (N.to_nat j < k)%nat).
    { intros l s j -> Hl. unfold a in Hl. cbn [aig_of_lit] in Hl. destruct s; cbn [b2n] in Hl; lia. }
    split; intros s j E; eapply H; try exact E; lia.
  Qed.

  Theorem parse_ascii_body_print ca rest :
    parse_ascii_body ca (header_of false p)
      (flat_map (fun k => dec (2 * (k + 1)) ++ nl) (seqN 0 (ap_inputs p))
       ++ print_latches true p ++ print_props p ++ flat_map_i (print_and_aag fa) 0 (ap_ands p) ++ rest)
    = POk (body_of p, rest).
  Proof.
    pose proof W as W'. destruct W'.
    unfold parse_ascii_body. cbn [header_of h_in h_lat h_vars h_and].
    fold nv na. rewrite ascii_inputs_print. cbn [pbind].
    rewrite ascii_latches_print. cbn [pbind].
    rewrite (p_props_print nv na); try assumption; try reflexivity; [|apply fa_first_and].
    cbn [pbind]. fold fa. rewrite ascii_ands_print. cbn [pbind].
    (* the variable map *)
    destruct (define_all_default (ap_inputs p) (lenN (ap_latches p)) na input_lits
                (map (fun x : N * N * option bool => fst (fst x))
                     (map_i (fun k x => (2 * (1 + ap_inputs p + k), a (fst x), snd x)) 0
                            (combine (ap_latches p) (ap_resets p))))
                (map (fun x : N * N * N => fst (fst x))
                     (map_i (fun k g => (2 * (fa + k), a (fst g), a (snd g))) 0 (ap_ands p))))
      as (m1 & m2 & D1 & D2 & D3).
    { intros j x Hj. unfold input_lits in Hj. rewrite nth_error_map, nth_error_seqN in Hj.
      destruct (Nat.ltb j (N.to_nat (ap_inputs p))); [|discriminate]. cbn in Hj. inversion Hj. lia. }
    { intros j x Hj. rewrite nth_error_map, nth_error_map_i in Hj.
      destruct (nth_error (combine (ap_latches p) (ap_resets p)) j); [|discriminate].
      cbn in Hj. inversion Hj. lia. }
    { intros j x Hj. rewrite nth_error_map, nth_error_map_i in Hj.
      destruct (nth_error (ap_ands p) j); [|discriminate].
      cbn in Hj. inversion Hj. unfold fa, nv, nvars. lia. }
    { unfold input_lits, lenN. rewrite map_length, seqN_length. lia. }
    { unfold lenN. rewrite map_length, map_i_length. apply (combine_lenN p W). }
    { unfold lenN. rewrite map_length, map_i_length. reflexivity. }
    replace (ap_inputs p + lenN (ap_latches p) + na) with (nv + na) in D1 by (unfold nv, nvars; lia).
    rewrite D1, D2.
    replace (1 + ap_inputs p + lenN (ap_latches p)) with fa in D3 by (unfold fa, nv, nvars; lia).
    rewrite D3.
    (* the mapped literals are the problem's literals *)
    cbn [pr_out pr_bad pr_inv pr_just pr_fair].
    pose proof (map_lit_default (nvars p) (nands p)) as Hml.
    rewrite !map_map_i. cbn [fst snd]. rewrite !map_i_const. unfold a, fa, nv, na.
    rewrite (read_back_latches p W _ Hml), (read_back_ands p W _ Hml), (read_back_justice p W _ Hml),
      !(read_back_lits p _ Hml) by assumption.
    rewrite map_snd_combine by (symmetry; assumption).
    change (mkBody (ap_latches p) (ap_resets p) (ap_outputs p) (ap_bad p) (ap_inv p) (ap_justice p)
                   (ap_fair p) (ap_ands p) (default_map (1 + nvars p) (nands p))) with (body_of p).
    (* no undefined literal, no cycle *)
    assert (U : forall ls, Forall (lit_ok nv na) ls -> existsb is_undef ls = false).
    { intros ls Hls. apply existsb_none. intros x Hx. rewrite Forall_forall in Hls.
      exact (lit_ok_not_undef nv na x (Hls x Hx)). }
    assert (Hu : lits_undef (body_of p) = false).
    { unfold lits_undef, body_of. cbn [b_lat b_out b_bad b_inv b_just b_fair b_ands].
      rewrite !U by assumption.
      rewrite (existsb_none (existsb is_undef))
        by (intros js Hjs; apply U; rewrite Forall_forall in wf_just0; auto).
      apply existsb_none. intros g Hg. apply In_nth_error in Hg. destruct Hg as [k Hk].
      destruct (and_facts p W k g Hk) as (H1 & H2 & _).
      rewrite (lit_ok_not_undef nv na _ H1), (lit_ok_not_undef nv na _ H2). reflexivity. }
    rewrite Hu. cbn [b_ands body_of]. rewrite (acyclic_b_topo _ topo_ands).
    cbn [negb]. rewrite andb_false_r. reflexivity.
  Qed.
End AsciiBody.

(* ------------------------------------------------------------------ *)
(** ** Round trips and equivalence *)

Lemma problem_of_body p : wf p ->
  mkProblem (ap_inputs p) (b_lat (body_of p)) (b_res (body_of p)) (b_out (body_of p)) (b_bad (body_of p))
            (b_inv (body_of p)) (b_just (body_of p)) (b_fair (body_of p)) (b_ands (body_of p))
            (b_map (body_of p)) (ap_syms p) = p.
Proof.
  intros W. destruct p. cbn. f_equal. symmetry. apply (wf_map _ W).
Qed.

Lemma symbol_table_of p bin : wf p -> symbol_table (header_of bin p) (print_syms p) = POk (ap_syms p, []).
Proof.
  intros W. destruct W. unfold print_syms.
  apply (symbol_table_print (header_of bin p) (ap_syms p)); cbn [header_of h_in h_lat h_out h_bad h_inv h_just h_fair];
    try assumption.
  unfold nvars, nands in *. lia.
Qed.

Theorem parse_print_aag ca p : wf p -> parse_aiger ca (print_aag p) = POk p.
Proof.
  intros W. unfold parse_aiger, print_aag.
  rewrite (p_header_print false p _ W). cbn [pbind h_bin header_of].
  rewrite (fa_first_and p).
  rewrite (parse_ascii_body_print p W ca). cbn [pbind].
  rewrite (symbol_table_of p false W). cbn [pbind comment_or_eof].
  f_equal. apply problem_of_body. exact W.
Qed.

Theorem parse_print_aig ca p : wf p -> parse_aiger ca (print_aig p) = POk p.
Proof.
  intros W. unfold parse_aiger, print_aig.
  rewrite (p_header_print true p _ W). cbn [pbind h_bin header_of].
  rewrite (fa_first_and p).
  rewrite (parse_bin_body_print p W). cbn [pbind].
  rewrite (symbol_table_of p true W). cbn [pbind comment_or_eof].
  f_equal. apply problem_of_body. exact W.
Qed.

(** equivalent ASCII / binary files parse to the same problem *)
Theorem aag_aig_equiv ca ca' p : wf p ->
  parse_aiger ca (print_aag p) = parse_aiger ca' (print_aig p).
Proof. intros W. rewrite parse_print_aag, parse_print_aig by assumption. reflexivity. Qed.
