(** * C18p proofs, part 2: count-driven loops and the sections of an AIGER file
      (literals of a well-formed problem, properties, latches, AND gates,
      the variable map of the ASCII branch, acyclicity) *)
From Coq Require Import List NArith ZArith Bool Arith Lia.
From OxiVerif Require Import IO.Aiger IO.AigerParse IO.AigerLexProofs IO.MarkingProofs.
Import ListNotations.
Open Scope N_scope.

Arguments N.of_nat : simpl never.
Arguments N.to_nat : simpl never.

(* ------------------------------------------------------------------ *)
(** ** Indexed maps *)

Fixpoint map_i {X A} (f : N -> X -> A) (i : N) (l : list X) : list A :=
  match l with
  | [] => []
  | x :: r => f i x :: map_i f (i + 1) r
  end.

Lemma lenN_cons {A} (x : A) l : lenN (x :: l) = lenN l + 1.
Proof. unfold lenN. cbn [length]. lia. Qed.

Lemma lenN_nil {A} : lenN (@nil A) = 0.
Proof. reflexivity. Qed.

Lemma lenN_map {A B} (f : A -> B) l : lenN (map f l) = lenN l.
Proof. unfold lenN. rewrite map_length. reflexivity. Qed.

Lemma map_i_length {X A} (f : N -> X -> A) : forall l i, length (map_i f i l) = length l.
Proof. induction l; intros; cbn; [reflexivity|]. f_equal. auto. Qed.

Lemma map_i_const {X A} (f : X -> A) : forall l i, map_i (fun _ => f) i l = map f l.
Proof. induction l; intros; cbn; [reflexivity|]. f_equal. auto. Qed.

Lemma map_map_i {X A B} (g : A -> B) (f : N -> X -> A) : forall l i,
  map g (map_i f i l) = map_i (fun k x => g (f k x)) i l.
Proof. induction l; intros; cbn; [reflexivity|]. f_equal. auto. Qed.

Lemma map_i_ext {X A} (f g : N -> X -> A) : forall l i,
  (forall j x, nth_error l j = Some x -> f (i + N.of_nat j) x = g (i + N.of_nat j) x) ->
  map_i f i l = map_i g i l.
Proof.
  induction l as [|y l IH]; intros i H; cbn; [reflexivity|]. f_equal.
  - specialize (H O y eq_refl). cbn in H. replace (i + N.of_nat 0) with i in H by lia. exact H.
  - apply IH. intros j x Hj. specialize (H (S j) x Hj).
    replace (i + N.of_nat (S j)) with (i + 1 + N.of_nat j) in H by lia. exact H.
Qed.

Lemma nth_error_map_i {X A} (f : N -> X -> A) : forall l i j,
  nth_error (map_i f i l) j = option_map (f (i + N.of_nat j)) (nth_error l j).
Proof.
  induction l as [|y l IH]; intros i j; destruct j; cbn; try reflexivity.
  - replace (i + N.of_nat 0) with i by lia. reflexivity.
  - rewrite IH. replace (i + 1 + N.of_nat j) with (i + N.of_nat (S j)) by lia. reflexivity.
Qed.

Lemma flat_map_i_const {X} (f : X -> list N) : forall l i, flat_map_i (fun _ => f) i l = flat_map f l.
Proof. induction l; intros; cbn; [reflexivity|]. f_equal. auto. Qed.

Lemma flat_map_i_shift {X} (f : N -> X -> list N) d : forall l i,
  flat_map_i (fun k => f (d + k)) i l = flat_map_i f (d + i) l.
Proof.
  induction l; intros; cbn; [reflexivity|]. f_equal. rewrite IHl. f_equal. lia.
Qed.

Lemma flat_map_i_ext {X} (f g : N -> X -> list N) : forall l i,
  (forall j x, nth_error l j = Some x -> f (i + N.of_nat j) x = g (i + N.of_nat j) x) ->
  flat_map_i f i l = flat_map_i g i l.
Proof.
  induction l as [|y l IH]; intros i H; cbn; [reflexivity|]. f_equal.
  - specialize (H O y eq_refl). replace (i + N.of_nat 0) with i in H by lia. exact H.
  - apply IH. intros j x Hj. specialize (H (S j) x Hj).
    replace (i + N.of_nat (S j)) with (i + 1 + N.of_nat j) in H by lia. exact H.
Qed.

Lemma flat_map_i_length_ge {X} (f : N -> X -> list N) : (forall k x, f k x <> []) ->
  forall l i, (length l <= length (flat_map_i f i l))%nat.
Proof.
  intros Hne. induction l as [|y l IH]; intros i; cbn; [lia|].
  rewrite app_length. specialize (IH (i + 1)). specialize (Hne i y).
  destruct (f i y); [contradiction|]. cbn. lia.
Qed.

(* ------------------------------------------------------------------ *)
(** ** [collect_i]: fuel monotonicity and reading back a printed list *)

Lemma collect_i_mono {A} (p : N -> list N -> pres (A * list N)) :
  forall f f' n i bs x, collect_i f n i p bs = POk x -> (f <= f')%nat -> collect_i f' n i p bs = POk x.
Proof.
  induction f as [|f IH]; intros f' n i bs x H Hle.
  - cbn in H. destruct f'; cbn; destruct (n =? 0); try discriminate; exact H.
  - destruct f' as [|f']; [lia|]. cbn in *. destruct (n =? 0); [exact H|].
    destruct (p i bs) as [[y r]| |]; try discriminate.
    destruct (collect_i f (n - 1) (i + 1) p r) as [[ys r']| |] eqn:E; try discriminate.
    rewrite (IH f' _ _ _ _ E) by lia. exact H.
Qed.

(** [P] is what a parser needs of the text behind its item; every printed item provides it
    to the item before *)
Lemma collect_i_print {X A} (P : list N -> Prop) (p : N -> list N -> pres (A * list N))
      (pr : N -> X -> list N) (val : N -> X -> A) :
  (forall k x r, P (pr k x ++ r)) ->
  forall items i rest, P rest ->
  (forall j x r k, nth_error items j = Some x -> k = i + N.of_nat j -> P r ->
                   p k (pr k x ++ r) = POk (val k x, r)) ->
  collect_i (length items) (lenN items) i p (flat_map_i pr i items ++ rest)
  = POk (map_i val i items, rest).
Proof.
  intros HP. induction items as [|y items IH]; intros i rest Hrest H; [reflexivity|].
  cbn [length collect_i flat_map_i map_i]. rewrite lenN_cons.
  destruct (N.eqb_spec (lenN items + 1) 0); [lia|].
  assert (Hnext : P (flat_map_i pr (i + 1) items ++ rest))
    by (destruct items; [exact Hrest|cbn [flat_map_i]; rewrite <- app_assoc; apply HP]).
  rewrite <- app_assoc, (H O y _ i eq_refl) by (lia || exact Hnext).
  replace (lenN items + 1 - 1) with (lenN items) by lia.
  rewrite IH; [reflexivity|exact Hrest|].
  intros j x r k Hj ->. apply (H (S j) x r); [exact Hj|lia].
Qed.

Lemma collect_from_print_guard {X A} (P : list N -> Prop) (p : N -> list N -> pres (A * list N))
      (pr : N -> X -> list N) (val : N -> X -> A) items n i rest :
  n = lenN items -> (forall k x, pr k x <> []) -> P rest -> (forall k x r, P (pr k x ++ r)) ->
  (forall j x r k, nth_error items j = Some x -> k = i + N.of_nat j -> P r ->
                   p k (pr k x ++ r) = POk (val k x, r)) ->
  collect_from n i p (flat_map_i pr i items ++ rest) = POk (map_i val i items, rest).
Proof.
  intros -> Hne Hrest HP H. unfold collect_from.
  eapply collect_i_mono; [apply (collect_i_print P); assumption|].
  rewrite app_length. pose proof (flat_map_i_length_ge pr Hne items i). lia.
Qed.

Lemma collect_from_print {X A} (p : N -> list N -> pres (A * list N)) (pr : N -> X -> list N)
      (val : N -> X -> A) items n i rest :
  n = lenN items ->
  (forall k x, pr k x <> []) ->
  (forall j x r k, nth_error items j = Some x -> k = i + N.of_nat j ->
                   p k (pr k x ++ r) = POk (val k x, r)) ->
  collect_from n i p (flat_map_i pr i items ++ rest) = POk (map_i val i items, rest).
Proof.
  intros Hn Hne H. apply (collect_from_print_guard (fun _ => True)); auto.
  intros j x r k Hj Hk _. exact (H j x r k Hj Hk).
Qed.

Lemma collect_print_guard {X A} (P : list N -> Prop) (p : list N -> pres (A * list N))
      (pr : X -> list N) (val : X -> A) items n rest :
  n = lenN items -> (forall x, pr x <> []) -> P rest -> (forall x r, P (pr x ++ r)) ->
  (forall x r, In x items -> P r -> p (pr x ++ r) = POk (val x, r)) ->
  collect n p (flat_map pr items ++ rest) = POk (map val items, rest).
Proof.
  intros Hn Hne Hrest HP H.
  rewrite <- (flat_map_i_const pr items 0), <- (map_i_const val items 0).
  apply (collect_from_print_guard P (fun _ => p) (fun _ => pr) (fun _ => val)); auto.
  intros j x r k Hj _. apply H. eapply nth_error_In; exact Hj.
Qed.

Lemma collect_print {X A} (p : list N -> pres (A * list N)) (pr : X -> list N) (val : X -> A)
      items n rest :
  n = lenN items ->
  (forall x, pr x <> []) ->
  (forall x r, In x items -> p (pr x ++ r) = POk (val x, r)) ->
  collect n p (flat_map pr items ++ rest) = POk (map val items, rest).
Proof. intros Hn Hne H. apply (collect_print_guard (fun _ => True)); auto. Qed.

Lemma collect_i_length {A} (p : N -> list N -> pres (A * list N)) :
  forall f n i bs xs r, collect_i f n i p bs = POk (xs, r) -> lenN xs = n.
Proof.
  induction f as [|f IH]; intros n i bs xs r H; cbn in H.
  - destruct (N.eqb_spec n 0); [|discriminate]. inversion H; subst. reflexivity.
  - destruct (N.eqb_spec n 0); [inversion H; subst; reflexivity|].
    destruct (p i bs) as [[y r0]| |]; try discriminate.
    destruct (collect_i f (n - 1) (i + 1) p r0) as [[ys r']| |] eqn:E; try discriminate.
    inversion H; subst. apply IH in E. rewrite lenN_cons. lia.
Qed.

Lemma collect_i_inv {A} (p : N -> list N -> pres (A * list N)) (Q : N -> A -> Prop) :
  (forall i bs x r, p i bs = POk (x, r) -> Q i x) ->
  forall f n i bs xs r, collect_i f n i p bs = POk (xs, r) ->
  forall j x, nth_error xs j = Some x -> Q (i + N.of_nat j) x.
Proof.
  intros Hp. induction f as [|f IH]; intros n i bs xs r H j x Hj; cbn in H.
  - destruct (n =? 0); [|discriminate]. inversion H; subst. destruct j; discriminate.
  - destruct (n =? 0); [inversion H; subst; destruct j; discriminate|].
    destruct (p i bs) as [[y r0]| |] eqn:E; try discriminate.
    destruct (collect_i f (n - 1) (i + 1) p r0) as [[ys r']| |] eqn:E2; try discriminate.
    inversion H; subst. destruct j as [|j].
    + inversion Hj; subst. replace (i + N.of_nat 0) with i by lia. eapply Hp; exact E.
    + replace (i + N.of_nat (S j)) with (i + 1 + N.of_nat j) by lia. eapply IH; [exact E2|exact Hj].
Qed.

Lemma collect_inv {A} (p : list N -> pres (A * list N)) (Q : A -> Prop) n bs xs r :
  (forall bs x r, p bs = POk (x, r) -> Q x) ->
  collect n p bs = POk (xs, r) -> lenN xs = n /\ Forall Q xs.
Proof.
  intros Hp H. unfold collect in H. split; [eapply collect_i_length; exact H|].
  apply Forall_forall. intros x Hx. apply In_nth_error in Hx. destruct Hx as [j Hj].
  apply (collect_i_inv (fun _ => p) (fun _ => Q) (fun _ => Hp) _ _ _ _ _ _ H j x Hj).
Qed.

(* ------------------------------------------------------------------ *)
(** ** Literals of a well-formed problem *)

Definition lit_ok (nvars nands : N) (l : alit) : Prop := lit_ok_b nvars nands l = true.

Lemma half_b2n s : b2n s / 2 = 0.
Proof. destruct s; reflexivity. Qed.

Lemma div2_b2n v s : (2 * v + b2n s) / 2 = v.
Proof. rewrite N.mul_comm, N.div_add_l, half_b2n by discriminate. apply N.add_0_r. Qed.

Lemma odd_b2n v s : N.odd (2 * v + b2n s) = s.
Proof. rewrite N.add_comm, N.odd_add_mul_2. destruct s; reflexivity. Qed.

Lemma half_double v : 2 * v / 2 = v.
Proof. rewrite N.mul_comm. apply N.div_mul. discriminate. Qed.

Lemma odd_double v : N.odd (2 * v) = false.
Proof. rewrite N.odd_mul. reflexivity. Qed.

Lemma aig_of_lit_var nvars nands l : lit_ok nvars nands l ->
  aig_of_lit (1 + nvars) l / 2 <= nvars + nands.
Proof.
  unfold lit_ok.
  destruct l as [s|s k|s g|s]; cbn [lit_ok_b aig_of_lit]; intros H;
    try discriminate; try apply N.ltb_lt in H; rewrite ?div2_b2n, ?half_b2n; lia.
Qed.

Lemma aig_of_lit_bound nvars nands : nvars + nands <= max_capacity -> forall l, lit_ok nvars nands l ->
  aig_of_lit (1 + nvars) l < two64 /\ aig_of_lit (1 + nvars) l / 2 <= nvars + nands.
Proof.
  intros Hcap l H. pose proof (aig_of_lit_var _ _ _ H) as Hv. split; [|exact Hv].
  set (x := aig_of_lit (1 + nvars) l) in *.
  pose proof (N.div_mod' x 2). pose proof (N.mod_lt x 2 ltac:(discriminate)).
  unfold max_capacity, two64 in *. lia.
Qed.

Lemma make_literal_aig_of_lit nvars nands l : lit_ok nvars nands l ->
  make_literal (1 + nvars) (aig_of_lit (1 + nvars) l) = l.
Proof.
  unfold lit_ok, make_literal, from_input_or_false.
  destruct l as [s|s k|s g|s]; cbn [lit_ok_b aig_of_lit]; intros H;
    try discriminate; try apply N.ltb_lt in H.
  - replace (b2n s) with (2 * 0 + b2n s) by lia. rewrite div2_b2n, odd_b2n.
    destruct (N.leb_spec (1 + nvars) 0); [lia|]. reflexivity.
  - rewrite div2_b2n, odd_b2n.
    destruct (N.leb_spec (1 + nvars) (k + 1)); [lia|].
    destruct (N.eqb_spec (k + 1) 0); [lia|]. f_equal. lia.
  - rewrite div2_b2n, odd_b2n.
    destruct (N.leb_spec (1 + nvars) (1 + nvars + g)); [|lia]. f_equal. lia.
Qed.

Lemma lit_ok_not_undef nvars nands l : lit_ok nvars nands l -> is_undef l = false.
Proof. destruct l; cbn; intros; [reflexivity|reflexivity|reflexivity|discriminate]. Qed.

(* ------------------------------------------------------------------ *)
(** ** outputs, bad, invariants, justice, fairness *)

Lemma dec_app_nonempty x r : dec x ++ r <> [].
Proof. pose proof (dec_nonempty x). destruct (dec x); [contradiction|discriminate]. Qed.

Section Props.
  Variables nvars nands : N.
  Let fa := 1 + nvars.
  Hypothesis Hcap : nvars + nands <= max_capacity.

  Lemma collect_lit_lines ls n rest :
    n = lenN ls -> Forall (lit_ok nvars nands) ls ->
    collect n (literal_line (nvars + nands)) (flat_map (print_lit_line fa) ls ++ rest)
    = POk (map (aig_of_lit fa) ls, rest).
  Proof.
    intros Hn Hok. apply collect_print; [exact Hn| |].
    - intros x. apply dec_app_nonempty.
    - intros x r Hin. unfold print_lit_line. rewrite <- app_assoc.
      rewrite Forall_forall in Hok.
      destruct (aig_of_lit_bound nvars nands Hcap x (Hok x Hin)).
      apply literal_line_dec; assumption.
  Qed.

  Lemma p_justice_print : forall (just : list (list alit)) rest,
    Forall (fun js => lenN js <= max_capacity) just ->
    Forall (Forall (lit_ok nvars nands)) just ->
    p_justice (nvars + nands) (map lenN just) (flat_map (flat_map (print_lit_line fa)) just ++ rest)
    = POk (map (map (aig_of_lit fa)) just, rest).
  Proof.
    induction just as [|js just IH]; intros rest Hlen Hok; [reflexivity|].
    inversion Hlen; subst. inversion Hok; subst.
    cbn [map flat_map p_justice]. rewrite <- app_assoc.
    rewrite collect_lit_lines by auto. cbn [pbind].
    rewrite IH by assumption. reflexivity.
  Qed.

  Lemma p_props_print h p rest :
    h_vars h = nvars + nands ->
    h_out h = lenN (ap_outputs p) -> h_bad h = lenN (ap_bad p) -> h_inv h = lenN (ap_inv p) ->
    h_just h = lenN (ap_justice p) -> h_fair h = lenN (ap_fair p) ->
    p_first_and p = fa ->
    Forall (fun js => lenN js <= max_capacity) (ap_justice p) ->
    Forall (lit_ok nvars nands) (ap_outputs p) -> Forall (lit_ok nvars nands) (ap_bad p) ->
    Forall (lit_ok nvars nands) (ap_inv p) -> Forall (Forall (lit_ok nvars nands)) (ap_justice p) ->
    Forall (lit_ok nvars nands) (ap_fair p) ->
    p_props h (print_props p ++ rest)
    = POk (mkProps (map (aig_of_lit fa) (ap_outputs p)) (map (aig_of_lit fa) (ap_bad p))
                   (map (aig_of_lit fa) (ap_inv p)) (map (map (aig_of_lit fa)) (ap_justice p))
                   (map (aig_of_lit fa) (ap_fair p)), rest).
  Proof.
    intros Hv Ho Hb Hi Hj Hf Hfa Hjl Hok1 Hok2 Hok3 Hok4 Hok5.
    unfold p_props, print_props. rewrite Hfa, Hv. rewrite <- !app_assoc.
    rewrite collect_lit_lines by auto. cbn [pbind].
    rewrite collect_lit_lines by auto. cbn [pbind].
    rewrite collect_lit_lines by auto. cbn [pbind].
    rewrite (collect_print usize_line (fun js : list alit => dec (lenN js) ++ nl) (@lenN alit)).
    - cbn [pbind]. rewrite p_justice_print by assumption. cbn [pbind].
      rewrite collect_lit_lines by auto. reflexivity.
    - exact Hj.
    - intros x. apply dec_app_nonempty.
    - intros x r Hin. rewrite <- app_assoc. apply usize_line_dec.
      rewrite Forall_forall in Hjl. auto.
  Qed.
End Props.

(* ------------------------------------------------------------------ *)
(** ** List updates and the default variable map *)

Lemma nth_error_upd {A} : forall (l : list A) i x j,
  nth_error (upd l i x) j = if (Nat.eqb j i && Nat.ltb i (length l))%bool then Some x else nth_error l j.
Proof.
  induction l as [|y l IH]; intros i x j.
  - destruct j, i; cbn; rewrite ?andb_false_r; reflexivity.
  - destruct i as [|i]; destruct j as [|j]; cbn [upd nth_error length]; try reflexivity.
    rewrite IH. reflexivity.
Qed.

Lemma upd_length {A} : forall (l : list A) i x, length (upd l i x) = length l.
Proof. induction l; intros [|i] x; cbn; auto. Qed.

Lemma nth_error_seqN s n j :
  nth_error (seqN s n) j = if Nat.ltb j (N.to_nat n) then Some (s + N.of_nat j) else None.
Proof.
  unfold seqN. rewrite nth_error_map.
  destruct (Nat.ltb_spec j (N.to_nat n)).
  - rewrite (nth_error_nth' _ O) by (rewrite seq_length; assumption).
    rewrite seq_nth by assumption. cbn. f_equal. lia.
  - replace (nth_error (seq (N.to_nat s) (N.to_nat n)) j) with (@None nat); [reflexivity|].
    symmetry. apply nth_error_None. rewrite seq_length. lia.
Qed.

Lemma seqN_length s n : length (seqN s n) = N.to_nat n.
Proof. unfold seqN. rewrite map_length, seq_length. reflexivity. Qed.

Lemma In_seqN s n x : In x (seqN s n) <-> s <= x < s + n.
Proof.
  unfold seqN. rewrite in_map_iff. split.
  - intros (k & <- & Hk). apply in_seq in Hk. lia.
  - intros H. exists (N.to_nat x). split; [lia|]. apply in_seq. lia.
Qed.

Lemma default_map_length fa na : length (default_map fa na) = N.to_nat (fa + na).
Proof. unfold default_map. rewrite app_length, !map_length, !seqN_length. lia. Qed.

Lemma nth_error_default_map fa na j :
  nth_error (default_map fa na) j =
  if Nat.ltb j (N.to_nat fa) then Some (from_input_or_false false (N.of_nat j))
  else if Nat.ltb j (N.to_nat (fa + na)) then Some (ALGate false (N.of_nat j - fa))
  else None.
Proof.
  unfold default_map.
  destruct (Nat.ltb_spec j (N.to_nat fa)).
  - rewrite nth_error_app1 by (rewrite map_length, seqN_length; assumption).
    rewrite nth_error_map, nth_error_seqN.
    destruct (Nat.ltb_spec j (N.to_nat fa)); [|lia]. cbn. do 2 f_equal; lia.
  - rewrite nth_error_app2 by (rewrite map_length, seqN_length; assumption).
    rewrite map_length, seqN_length, nth_error_map, nth_error_seqN.
    destruct (Nat.ltb_spec (j - N.to_nat fa) (N.to_nat na)), (Nat.ltb_spec j (N.to_nat (fa + na)));
      try lia; [|reflexivity].
    cbn. do 2 f_equal; lia.
Qed.

(* ------------------------------------------------------------------ *)
(** ** [define_all] over consecutive variables *)

Lemma seqN_succ s n : seqN s (n + 1) = s :: seqN (s + 1) n.
Proof.
  unfold seqN. replace (N.to_nat (n + 1)) with (S (N.to_nat n)) by lia.
  cbn [seq map]. rewrite N2Nat.id. do 3 f_equal. lia.
Qed.

Lemma seqN_app s a b : seqN s (a + b) = seqN s a ++ seqN (s + a) b.
Proof.
  unfold seqN. rewrite !N2Nat.inj_add, seq_app, map_app. reflexivity.
Qed.

Lemma upd_app_mid {A} (pre : list A) y x r : upd (pre ++ y :: r) (length pre) x = pre ++ x :: r.
Proof. induction pre; cbn; [reflexivity|]. f_equal. assumption. Qed.

Lemma define_all_fill mk : forall lits pre post i,
  (forall j x, nth_error lits j = Some x -> x = 2 * N.of_nat (length pre + j)) ->
  define_all (pre ++ repeat (ALUndef false) (length lits) ++ post) lits mk i
  = Some (pre ++ map mk (seqN i (lenN lits)) ++ post).
Proof.
  induction lits as [|x lits IH]; intros pre post i Hl; [reflexivity|].
  rewrite (Hl O x eq_refl). cbn [define_all length repeat app].
  rewrite (N.mul_comm 2), N.div_mul, Nat.add_0_r, Nat2N.id by discriminate.
  rewrite nth_error_app2, Nat.sub_diag, upd_app_mid by lia. cbn [nth_error].
  rewrite lenN_cons, seqN_succ. cbn [map].
  specialize (IH (pre ++ [mk i]) post (i + 1)). rewrite <- !app_assoc in IH. apply IH.
  intros j y Hj. rewrite (Hl (S j) y Hj), app_length. f_equal. cbn [length]. lia.
Qed.

(** the three definition loops of a file whose variables are numbered inputs,
    latches, AND gates in order yield the default map *)
Lemma define_all_default ni nl na (ins lats ands : list N) :
  (forall j x, nth_error ins j = Some x -> x = 2 * N.of_nat (1 + j)) ->
  (forall j x, nth_error lats j = Some x -> x = 2 * N.of_nat (1 + N.to_nat ni + j)) ->
  (forall j x, nth_error ands j = Some x -> x = 2 * N.of_nat (1 + N.to_nat ni + N.to_nat nl + j)) ->
  lenN ins = ni -> lenN lats = nl -> lenN ands = na ->
  exists m1 m2,
    define_all (ALConst false :: repeat (ALUndef false) (N.to_nat (ni + nl + na))) ins
               (from_input_or_false false) 1 = Some m1 /\
    define_all m1 lats (from_input_or_false false) (1 + ni) = Some m2 /\
    define_all m2 ands (ALGate false) 0 = Some (default_map (1 + ni + nl) na).
Proof.
  intros Hi Hl Ha Li Ll La.
  set (fi := from_input_or_false false). set (U := ALUndef false).
  replace (N.to_nat (ni + nl + na)) with (length ins + (length lats + length ands))%nat
    by (unfold lenN in *; lia).
  rewrite !repeat_app.
  exists (map fi (seqN 0 (1 + ni)) ++ repeat U (length lats) ++ repeat U (length ands)),
         (map fi (seqN 0 (1 + ni + nl)) ++ repeat U (length ands)).
  assert (Lseq : forall n, length (map fi (seqN 0 n)) = N.to_nat n)
    by (intros; rewrite map_length; apply seqN_length).
  split; [|split].
  - rewrite (seqN_app 0 1 ni), map_app, <- app_assoc, <- Li.
    apply (define_all_fill fi ins [ALConst false]). exact Hi.
  - rewrite (seqN_app 0 (1 + ni) nl), map_app, <- app_assoc, <- Ll.
    apply define_all_fill.
    intros j x Hj. rewrite (Hl j x Hj), Lseq. do 2 f_equal. lia.
  - unfold default_map.
    rewrite <- (app_nil_r (repeat U _)), <- (app_nil_r (map (ALGate false) _)), <- La.
    apply define_all_fill.
    intros j x Hj. rewrite (Ha j x Hj), Lseq. do 2 f_equal. lia.
Qed.

Lemma map_lit_default_map fa na x : x / 2 < fa + na ->
  map_lit (default_map fa na) x = make_literal fa x.
Proof.
  intros Hx. unfold map_lit, make_literal.
  rewrite <- nth_default_eq. unfold nth_default. rewrite nth_error_default_map, N2Nat.id.
  destruct (Nat.ltb_spec (N.to_nat (x / 2)) (N.to_nat fa)), (N.leb_spec fa (x / 2)); try lia.
  - unfold from_input_or_false. destruct (x / 2 =? 0); reflexivity.
  - destruct (Nat.ltb_spec (N.to_nat (x / 2)) (N.to_nat (fa + na))); [reflexivity|lia].
Qed.

Lemma map_lit_default nvars nands l : lit_ok nvars nands l ->
  map_lit (default_map (1 + nvars) nands) (aig_of_lit (1 + nvars) l) = l.
Proof.
  intros H. rewrite map_lit_default_map by (pose proof (aig_of_lit_var _ _ _ H); lia).
  apply (make_literal_aig_of_lit _ _ _ H).
Qed.

(* ------------------------------------------------------------------ *)
(** ** Topologically ordered gate lists are acyclic for [acyclic_b] *)

(** gate [k] only refers to gates with a smaller number *)
Definition topo (gates : list (alit * alit)) : Prop :=
  forall k g, nth_error gates k = Some g ->
    (forall s j, fst g = ALGate s j -> (N.to_nat j < k)%nat) /\
    (forall s j, snd g = ALGate s j -> (N.to_nat j < k)%nat).

Lemma mark_round_length gates marks : length (mark_round gates marks) = length gates.
Proof. unfold mark_round. apply map_length. Qed.

Lemma mark_rounds_length : forall r gates marks, length marks = length gates ->
  length (mark_rounds r gates marks) = length gates.
Proof.
  induction r; intros gates marks H; cbn; [exact H|]. apply IHr. apply mark_round_length.
Qed.

Lemma nth_mark_round gates m g x : nth_error gates g = Some x ->
  nth g (mark_round gates m) false = lit_marked m (fst x) && lit_marked m (snd x).
Proof. apply (nth_map_error (fun g => lit_marked m (fst g) && lit_marked m (snd g))). Qed.

Lemma acyclic_b_topo gates : topo gates -> acyclic_b gates = true.
Proof.
  intros Ht.
  apply (topo_all_marked (length gates) (mark_round gates) (fun k => mark_rounds k gates));
    [reflexivity|reflexivity|apply mark_rounds_length, map_length|].
  intros m k Hk Hm. destruct (nth_error gates k) as [g|] eqn:Eg; [|apply nth_error_None in Eg; lia].
  rewrite (nth_mark_round _ _ _ _ Eg). destruct (Ht k g Eg) as [H1 H2].
  assert (H : forall l, (forall s j, l = ALGate s j -> (N.to_nat j < k)%nat) -> lit_marked m l = true).
  { intros [| |s j|] Hl; try reflexivity. apply Hm. exact (Hl s j eq_refl). }
  rewrite !H by assumption. reflexivity.
Qed.
