(** * C18p proofs, part 6: what an accepted binary file guarantees

    If the model reader accepts a binary ([aig]) file, the problem it returns
    - has its AND gates in topological order (gate [k] only refers to gates
      with a smaller number): no cyclic dependency, [acyclic_b] holds;
    - is well-formed up to the shape of the symbol names, so that -- for names
      a symbol line can reproduce -- printing it in ASCII form and reading
      that file gives the same problem. *)
From Coq Require Import List NArith ZArith Bool Arith Lia Relations.
From OxiVerif Require Import IO.Aiger IO.AigerParse IO.AigerLexProofs IO.AigerSecProofs IO.AigerSymProofs
     IO.AigerProofs IO.MarkingProofs.
Import ListNotations.
Open Scope N_scope.

(** case analysis on the head parser of a [pbind] chain in hypothesis [H] *)
Ltac inv_bind H :=
  match type of H with
  | pbind ?r _ = POk _ =>
    let E := fresh "E" in
    destruct r as [[? ?]| |] eqn:E; cbn [pbind] in H; try discriminate H
  end.
Ltac inv_bind0 H :=
  match type of H with
  | pbind ?r _ = POk _ =>
    let E := fresh "E" in
    destruct r as [?| |] eqn:E; cbn [pbind] in H; try discriminate H
  end.

(* ------------------------------------------------------------------ *)
(** ** Numbers and lines *)

Lemma p_usize_bound bs v r : p_usize bs = POk (v, r) -> v <= max_capacity.
Proof.
  unfold p_usize. intros H. inv_bind H.
  destruct (N.ltb_spec max_capacity n); [discriminate|]. inversion H; subst. assumption.
Qed.

Lemma sp_usize_bound bs v r : sp_usize bs = POk (v, r) -> v <= max_capacity.
Proof. unfold sp_usize. intros H. inv_bind0 H. eapply p_usize_bound; exact H. Qed.

Lemma opt_nums_bound : forall k bs o r, opt_nums k bs = (o, r) -> Forall (fun v => v <= max_capacity) o.
Proof.
  induction k as [|k IH]; intros bs o r H; cbn in H.
  - inversion H; subst. constructor.
  - destruct (sp_usize bs) as [[n r1]| |] eqn:E; try (inversion H; subst; constructor).
    destruct (opt_nums k r1) as [ns r'] eqn:E2. inversion H; subst.
    constructor; [eapply sp_usize_bound; exact E|eapply IH; exact E2].
Qed.

Lemma nth_bound (o : list N) j : Forall (fun v => v <= max_capacity) o -> nth j o 0 <= max_capacity.
Proof.
  intros H. destruct (nth_in_or_default j o 0) as [Hin| ->].
  - rewrite Forall_forall in H. apply H. exact Hin.
  - unfold max_capacity. lia.
Qed.

Lemma p_literal_inv vars bs x r : p_literal vars bs = POk (x, r) -> x / 2 <= vars.
Proof.
  unfold p_literal. intros H. inv_bind H. destruct (N.ltb_spec vars (n / 2)); [discriminate|].
  inversion H; subst. assumption.
Qed.

Lemma literal_line_inv vars bs x r : literal_line vars bs = POk (x, r) -> x / 2 <= vars.
Proof.
  unfold literal_line. intros H. inv_bind H. inv_bind0 H. inversion H; subst.
  eapply p_literal_inv; exact E.
Qed.

Lemma usize_line_inv bs x r : usize_line bs = POk (x, r) -> x <= max_capacity.
Proof.
  unfold usize_line. intros H. inv_bind H. inv_bind0 H. inversion H; subst.
  eapply p_usize_bound; exact E.
Qed.

Lemma bin_latch_inv vars fl i bs x o r : bin_latch vars fl i bs = POk ((x, o), r) -> x / 2 <= vars.
Proof.
  unfold bin_latch. intros H. inv_bind H. inv_bind H. inv_bind0 H. inversion H; subst.
  eapply p_literal_inv; exact E.
Qed.

Lemma bin_and_inv i bs a b r : bin_and i bs = POk ((a, b), r) -> a < i * 2 /\ b <= a.
Proof.
  unfold bin_and. intros H. inv_bind H. inv_bind H.
  unfold and_gate_bin in H.
  destruct (N.ltb_spec (i * 2) n); cbn [orb] in H; [discriminate|].
  destruct (N.eqb_spec n 0); cbn [orb] in H; [discriminate|].
  destruct (N.ltb_spec (i * 2 - n) n0); [discriminate|].
  inversion H; subst. lia.
Qed.

(* ------------------------------------------------------------------ *)
(** ** Loops *)

Lemma p_justice_inv vars : forall lens bs jss r, p_justice vars lens bs = POk (jss, r) ->
  map lenN jss = lens /\ Forall (Forall (fun x => x / 2 <= vars)) jss.
Proof.
  induction lens as [|n lens IH]; intros bs jss r H; cbn [p_justice] in H.
  - inversion H; subst. split; [reflexivity|constructor].
  - inv_bind H. inv_bind H. inversion H; subst.
    destruct (collect_inv _ (fun x => x / 2 <= vars) _ _ _ _ (literal_line_inv vars) E) as [L1 F1].
    destruct (IH _ _ _ E0) as [L2 F2]. split; [cbn; f_equal; assumption|constructor; assumption].
Qed.

Lemma p_props_inv h bs props r : p_props h bs = POk (props, r) ->
  let ok := fun x => x / 2 <= h_vars h in
  lenN (pr_out props) = h_out h /\ lenN (pr_bad props) = h_bad h /\ lenN (pr_inv props) = h_inv h /\
  lenN (pr_just props) = h_just h /\ lenN (pr_fair props) = h_fair h /\
  Forall ok (pr_out props) /\ Forall ok (pr_bad props) /\ Forall ok (pr_inv props) /\
  Forall (Forall ok) (pr_just props) /\ Forall ok (pr_fair props) /\
  Forall (fun js => lenN js <= max_capacity) (pr_just props).
Proof.
  unfold p_props. intros H. set (ok := fun x : N => x / 2 <= h_vars h). do 6 inv_bind H. inversion H; subst. cbn [pr_out pr_bad pr_inv pr_just pr_fair].
  destruct (collect_inv _ ok _ _ _ _ (literal_line_inv (h_vars h)) E) as [L1 F1].
  destruct (collect_inv _ ok _ _ _ _ (literal_line_inv (h_vars h)) E0) as [L2 F2].
  destruct (collect_inv _ ok _ _ _ _ (literal_line_inv (h_vars h)) E1) as [L3 F3].
  destruct (collect_inv _ (fun x => x <= max_capacity) _ _ _ _ usize_line_inv E2) as [L4 F4].
  destruct (p_justice_inv _ _ _ _ _ E3) as [L5 F5].
  destruct (collect_inv _ ok _ _ _ _ (literal_line_inv (h_vars h)) E4) as [L6 F6].
  repeat split; try assumption.
  - rewrite <- L4, <- L5. symmetry. apply lenN_map.
  - rewrite <- L5 in F4. exact (proj1 (Forall_map lenN (fun v => v <= max_capacity) _) F4).
Qed.

(* ------------------------------------------------------------------ *)
(** ** Header *)

Definition is_binary (bs : list N) : Prop := nth_error bs 1 = Some 105.

Lemma p_header_inv bs h r : p_header bs = POk (h, r) ->
  h_vars h <= max_capacity /\ h_in h <= max_capacity /\ h_lat h <= max_capacity /\
  h_out h <= max_capacity /\ h_and h <= max_capacity /\ h_bad h <= max_capacity /\
  h_inv h <= max_capacity /\ h_just h <= max_capacity /\ h_fair h <= max_capacity /\
  (h_bin h = true -> h_vars h = h_in h + h_lat h + h_and h) /\
  (is_binary bs -> h_bin h = true).
Proof.
  unfold p_header. intros H. do 6 inv_bind H.
  match type of H with context [opt_nums 4 ?x] => destruct (opt_nums 4 x) as [o r6] eqn:Eo end. inv_bind0 H.
  apply sp_usize_bound in E0, E1, E2, E3, E4. apply opt_nums_bound in Eo.
  assert (Hb : is_binary bs -> b = true).
  { unfold p_format in E. unfold is_binary. destruct bs as [|c0 [|c1 [|c2 t]]]; try discriminate.
    cbn [nth_error]. intros Hc. inversion Hc; subst.
    destruct ((c0 =? 97) && (c2 =? 103) && ((105 =? 97) || (105 =? 105))); [|discriminate].
    destruct t as [|d t']; [inversion E; reflexivity|]. destruct (is_alnum d); [discriminate|].
    inversion E; reflexivity. }
  destruct b.
  - destruct (N.eqb_spec n (n0 + n1 + n3)); [|discriminate]. inversion H; subst.
    cbn [h_vars h_in h_lat h_out h_and h_bad h_inv h_just h_fair h_bin].
    repeat split; auto using nth_bound.
  - destruct (N.ltb_spec n (n0 + n1 + n3)); [discriminate|]. inversion H; subst.
    cbn [h_vars h_in h_lat h_out h_and h_bad h_inv h_just h_fair h_bin].
    repeat split; auto using nth_bound; try discriminate.
Qed.

(* ------------------------------------------------------------------ *)
(** ** Literals produced by [make_literal] *)

Lemma make_literal_ok nv na x : x / 2 <= nv + na -> lit_ok nv na (make_literal (1 + nv) x).
Proof.
  unfold lit_ok, make_literal, from_input_or_false. generalize (x / 2). intros v Hx.
  destruct (N.leb_spec (1 + nv) v); cbn [lit_ok_b].
  - apply N.ltb_lt. lia.
  - destruct (N.eqb_spec v 0); cbn [lit_ok_b]; [reflexivity|]. apply N.ltb_lt. lia.
Qed.

Lemma b2n_odd x : b2n (N.odd x) = x mod 2.
Proof.
  rewrite <- N.bit0_odd. pose proof (N.bit0_mod x) as H. unfold N.b2n, b2n in *.
  destruct (N.testbit x 0); exact H.
Qed.

Lemma aig_of_make_literal nv x : aig_of_lit (1 + nv) (make_literal (1 + nv) x) = x.
Proof.
  unfold make_literal, from_input_or_false.
  pose proof (N.div_mod' x 2) as E. rewrite <- b2n_odd in E. revert E. generalize (x / 2). intros v E.
  destruct (N.leb_spec (1 + nv) v); cbn [aig_of_lit]; [lia|].
  destruct (N.eqb_spec v 0); cbn [aig_of_lit]; lia.
Qed.

(* ------------------------------------------------------------------ *)
(** ** Accepted binary files *)

(** the symbol names are such that a symbol line reproduces them (true when no
    symbol occurs twice with an empty first name, cf. [Example] in Props/C18.v) *)
Definition syms_ok (p : aproblem) : Prop :=
  names_ok_b (nvars p) (sy_in (ap_syms p)) = true /\
  names_ok_b (lenN (ap_outputs p)) (sy_out (ap_syms p)) = true /\
  names_ok_b (lenN (ap_bad p)) (sy_bad (ap_syms p)) = true /\
  names_ok_b (lenN (ap_inv p)) (sy_inv (ap_syms p)) = true /\
  names_ok_b (lenN (ap_justice p)) (sy_just (ap_syms p)) = true /\
  names_ok_b (lenN (ap_fair p)) (sy_fair (ap_syms p)) = true.

Lemma Forall_map_ok nv na xs : Forall (fun x => x / 2 <= nv + na) xs ->
  Forall (lit_ok nv na) (map (make_literal (1 + nv)) xs).
Proof. intros H. apply Forall_map. eapply Forall_impl; [|exact H]. apply make_literal_ok. Qed.

Theorem parse_bin_body_inv h bs b r :
  h_vars h = h_in h + h_lat h + h_and h -> h_vars h <= max_capacity ->
  parse_bin_body h bs = POk (b, r) ->
  let nv := h_in h + h_lat h in
  let na := h_and h in
  length (b_res b) = length (b_lat b) /\ lenN (b_lat b) = h_lat h /\ lenN (b_ands b) = h_and h /\
  lenN (b_out b) = h_out h /\ lenN (b_bad b) = h_bad h /\ lenN (b_inv b) = h_inv h /\
  lenN (b_just b) = h_just h /\ lenN (b_fair b) = h_fair h /\
  Forall (fun js => lenN js <= max_capacity) (b_just b) /\
  Forall (lit_ok nv na) (b_lat b) /\ Forall (lit_ok nv na) (b_out b) /\ Forall (lit_ok nv na) (b_bad b) /\
  Forall (lit_ok nv na) (b_inv b) /\ Forall (Forall (lit_ok nv na)) (b_just b) /\
  Forall (lit_ok nv na) (b_fair b) /\
  (forall k g, nth_error (b_ands b) k = Some g -> and_ok_b nv na (1 + nv) (N.of_nat k) g = true) /\
  b_map b = default_map (1 + nv) na.
Proof.
  intros Hv Hcap H nv na. unfold parse_bin_body in H.
  destruct (collect_from (h_lat h) 0 _ bs) as [[l r1]| |] eqn:E; cbn [pbind] in H; try discriminate H.
  destruct (p_props h r1) as [[props r2]| |] eqn:E0; cbn [pbind] in H; try discriminate H.
  destruct (collect_from (h_and h) _ bin_and r2) as [[l3 r3]| |] eqn:E1; cbn [pbind] in H; try discriminate H.
  inversion H; subst. clear H.
  cbn [b_lat b_res b_out b_bad b_inv b_just b_fair b_ands b_map].
  replace (1 + h_in h + h_lat h) with (1 + nv) in * by (unfold nv; lia).
  assert (Hvars : h_vars h = nv + na) by (unfold nv, na; lia).
  (* latches *)
  unfold collect_from in E, E1.
  pose proof (collect_i_length _ _ _ _ _ _ _ E) as Ll.
  assert (Fl : Forall (fun x : N * option bool => fst x / 2 <= nv + na) l).
  { apply Forall_forall. intros x Hx. apply In_nth_error in Hx. destruct Hx as [j Hj].
    refine (collect_i_inv _ (fun _ (x : N * option bool) => fst x / 2 <= nv + na) _ _ _ _ _ _ _ E j x Hj).
    intros i bs0 [x0 o0] r0 Hb. rewrite <- Hvars. cbn [fst]. eapply bin_latch_inv; exact Hb. }
  (* properties *)
  destruct (p_props_inv _ _ _ _ E0) as (P1 & P2 & P3 & P4 & P5 & F1 & F2 & F3 & F4 & F5 & F6).
  rewrite Hvars in *.
  (* gates *)
  pose proof (collect_i_length _ _ _ _ _ _ _ E1) as La.
  assert (Fa : forall k g, nth_error l3 k = Some g -> fst g < (1 + nv + N.of_nat k) * 2 /\ snd g <= fst g).
  { intros k [a0 b0] Hk.
    refine (collect_i_inv _ (fun i (g : N * N) => fst g < i * 2 /\ snd g <= fst g) _ _ _ _ _ _ _ E1 k _ Hk).
    intros i bs0 [a1 b1] r0 Hb. cbn [fst snd]. eapply bin_and_inv; exact Hb. }
  repeat split.
  - rewrite !map_length. reflexivity.
  - rewrite lenN_map. exact Ll.
  - rewrite lenN_map. exact La.
  - rewrite lenN_map. exact P1.
  - rewrite lenN_map. exact P2.
  - rewrite lenN_map. exact P3.
  - rewrite lenN_map. exact P4.
  - rewrite lenN_map. exact P5.
  - apply Forall_map. eapply Forall_impl; [|exact F6]. intros js Hjs. rewrite lenN_map. exact Hjs.
  - rewrite <- (map_map fst (make_literal (1 + nv))). apply Forall_map_ok, Forall_map. exact Fl.
  - apply Forall_map_ok; assumption.
  - apply Forall_map_ok; assumption.
  - apply Forall_map_ok; assumption.
  - apply Forall_map. eapply Forall_impl; [|exact F4]. apply Forall_map_ok.
  - apply Forall_map_ok; assumption.
  - intros k g Hk. rewrite nth_error_map in Hk. destruct (nth_error l3 k) as [[a0 b0]|] eqn:Ek; [|discriminate].
    cbn in Hk. inversion Hk; subst. clear Hk. destruct (Fa _ _ Ek) as [H1 H2]. cbn [fst snd] in *.
    assert (k < length l3)%nat by (apply nth_error_Some; congruence).
    assert (Hk2 : N.of_nat k < na) by (unfold na; rewrite <- La; unfold lenN; lia).
    unfold and_ok_b. cbn [fst snd]. rewrite !aig_of_make_literal.
    assert (Ha0 : a0 / 2 <= nv + na) by (apply N.lt_succ_r, N.div_lt_upper_bound; [discriminate|lia]).
    assert (Hb0 : b0 / 2 <= nv + na)
      by (etransitivity; [apply N.div_le_mono; [discriminate|exact H2]|exact Ha0]).
    rewrite !(make_literal_ok nv na) by assumption.
    cbn [andb]. destruct (N.ltb_spec a0 (2 * (1 + nv + N.of_nat k))); [|lia].
    destruct (N.leb_spec b0 a0); [reflexivity|lia].
Qed.

(** (c, strong direction) an accepted binary file yields a well-formed problem,
    provided its symbol names have the shape a symbol line reproduces *)
Theorem parse_aig_wf ca bs p : is_binary bs -> parse_aiger ca bs = POk p -> syms_ok p -> wf p.
Proof.
  intros Hb H Hs. unfold parse_aiger in H. inv_bind H.
  destruct (p_header_inv _ _ _ E) as (C0 & C1 & C2 & C3 & C4 & C5 & C6 & C7 & C8 & Hv & Hbin).
  rewrite (Hbin Hb) in H. specialize (Hv (Hbin Hb)). inv_bind H. inv_bind H.
  match type of H with context [comment_or_eof ?x] => destruct (comment_or_eof x); [|discriminate] end.
  inversion H; subst. clear H.
  destruct (parse_bin_body_inv _ _ _ _ Hv C0 E0)
    as (B1 & B2 & B3 & B4 & B5 & B6 & B7 & B8 & B9 & B10 & B11 & B12 & B13 & B14 & B15 & B16 & B17).
  destruct Hs as (S1 & S2 & S3 & S4 & S5 & S6).
  unfold nvars, nands in *. cbn [ap_inputs ap_latches ap_resets ap_outputs ap_bad ap_inv ap_justice ap_fair
                                 ap_ands ap_map ap_syms] in *.
  rewrite <- B2, <- B3 in *. rewrite <- B4 in C3. rewrite <- B5 in C5. rewrite <- B6 in C6.
  rewrite <- B7 in C7. rewrite <- B8 in C8.
  constructor; unfold nvars, nands;
    cbn [ap_inputs ap_latches ap_resets ap_outputs ap_bad ap_inv ap_justice ap_fair ap_ands ap_map ap_syms];
    try assumption. lia.
Qed.

(** ... so writing it in ASCII form and reading that file gives the same problem *)
Theorem parse_aig_then_aag ca ca' bs p : is_binary bs -> parse_aiger ca bs = POk p -> syms_ok p ->
  parse_aiger ca' (print_aag p) = POk p.
Proof. intros Hb H Hs. apply parse_print_aag. eapply parse_aig_wf; eassumption. Qed.

(* ------------------------------------------------------------------ *)
(** ** (d) AND gates of a binary file are topologically ordered *)

(** gate [g] reads the output of gate [g'] *)
Definition reads (gates : list (alit * alit)) (g g' : nat) : Prop :=
  exists x s, nth_error gates g = Some x /\
              (fst x = ALGate s (N.of_nat g') \/ snd x = ALGate s (N.of_nat g')).

Lemma topo_reads gates : topo gates -> forall g g', reads gates g g' -> (g' < g)%nat.
Proof.
  intros Ht g g' (x & s & Hx & [E|E]); destruct (Ht g x Hx) as [H1 H2].
  - specialize (H1 _ _ E). lia.
  - specialize (H2 _ _ E). lia.
Qed.

Lemma topo_no_cycle gates : topo gates -> forall g, ~ clos_trans nat (reads gates) g g.
Proof. intros Ht. apply descending_no_cycle. apply topo_reads. exact Ht. Qed.

Lemma and_ok_topo nv na gates :
  (forall k g, nth_error gates k = Some g -> and_ok_b nv na (1 + nv) (N.of_nat k) g = true) -> topo gates.
Proof.
  intros H k g Hk. specialize (H k g Hk). unfold and_ok_b in H. rewrite !andb_true_iff in H.
  destruct H as [[[_ _] H3] H4]. apply N.ltb_lt in H3. apply N.leb_le in H4.
  assert (forall l s j, l = ALGate s j -> aig_of_lit (1 + nv) l < 2 * (1 + nv + N.of_nat k) -> (N.to_nat j < k)%nat).
  { intros l s j -> Hl. cbn [aig_of_lit] in Hl. destruct s; cbn [b2n] in Hl; lia. }
  split; intros s j E; eapply H; try exact E; lia.
Qed.

Lemma bin_body_topo bs h r0 b r1 : p_header bs = POk (h, r0) -> h_bin h = true ->
  parse_bin_body h r0 = POk (b, r1) -> topo (b_ands b).
Proof.
  intros Eh Eb E0.
  destruct (p_header_inv _ _ _ Eh) as (C0 & _ & _ & _ & _ & _ & _ & _ & _ & Hv & _).
  destruct (parse_bin_body_inv _ _ _ _ (Hv Eb) C0 E0)
    as (_ & _ & _ & _ & _ & _ & _ & _ & _ & _ & _ & _ & _ & _ & _ & B16 & _).
  exact (and_ok_topo _ _ _ B16).
Qed.

Theorem parse_aig_topo ca bs p : is_binary bs -> parse_aiger ca bs = POk p ->
  topo (ap_ands p) /\ acyclic_b (ap_ands p) = true /\
  forall g, ~ clos_trans nat (reads (ap_ands p)) g g.
Proof.
  intros Hb H. unfold parse_aiger in H. inv_bind H.
  destruct (p_header_inv _ _ _ E) as (_ & _ & _ & _ & _ & _ & _ & _ & _ & _ & Hbin).
  pose proof (Hbin Hb) as Eb. rewrite Eb in H. inv_bind H. inv_bind H.
  match type of H with context [comment_or_eof ?x] => destruct (comment_or_eof x); [|discriminate] end.
  inversion H; subst. clear H. cbn [ap_ands].
  pose proof (bin_body_topo _ _ _ _ _ E Eb E0) as Ht.
  split; [exact Ht|]. split; [apply acyclic_b_topo; exact Ht|apply topo_no_cycle; exact Ht].
Qed.
