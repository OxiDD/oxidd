(** * C18p proofs, part 3: the symbol table of an AIGER file is read back *)
From Coq Require Import List NArith ZArith Bool Arith Lia.
From OxiVerif Require Import Base.ListFacts IO.Aiger IO.AigerParse IO.AigerLexProofs IO.AigerSecProofs.
Import ListNotations.
Open Scope N_scope.

(* ------------------------------------------------------------------ *)
(** ** Names *)

Definition name_ok (n : aname) : Prop := name_ok_b n = true.

Lemma name_ok_facts n : name_ok n ->
  Forall (fun b => b <> 10 /\ b <> 13) n /\ nosp n /\ (n = [] \/ exists t b, n = t ++ [b] /\ is_sp b = false).
Proof.
  unfold name_ok, name_ok_b. rewrite !andb_true_iff. intros [[H1 H2] H3]. split; [|split].
  - apply Forall_forall. intros b Hb. rewrite forallb_forall in H1. specialize (H1 b Hb).
    apply negb_true_iff, orb_false_iff in H1. destruct H1 as [A B].
    apply N.eqb_neq in A. apply N.eqb_neq in B. auto.
  - destruct n as [|b r]; [exact I|]. cbn. apply negb_true_iff in H2. exact H2.
  - destruct n as [|b0 r0] eqn:E; [left; reflexivity|]. right. rewrite <- E in *.
    destruct (rev n) as [|b t] eqn:Er.
    + apply (f_equal (@rev N)) in Er. rewrite rev_involutive in Er. subst n. discriminate.
    + exists (rev t), b. split; [|apply negb_true_iff; exact H3].
      apply (f_equal (@rev N)) in Er. rewrite rev_involutive in Er. exact Er.
Qed.

Lemma trim_end_last : forall t b, is_sp b = false -> trim_end (t ++ [b]) = t ++ [b].
Proof.
  induction t as [|x t IH]; intros b Hb.
  - cbn. rewrite Hb. reflexivity.
  - cbn [app trim_end]. rewrite IH by assumption. destruct (t ++ [b]) eqn:E; [|reflexivity].
    destruct t; discriminate.
Qed.

Lemma trim_end_ok n : name_ok n -> trim_end n = n.
Proof.
  intros H. destruct (name_ok_facts n H) as (_ & _ & [->|(t & b & -> & Hb)]); [reflexivity|].
  apply trim_end_last. exact Hb.
Qed.

Lemma not_line_ending_name : forall n rest, Forall (fun b => b <> 10 /\ b <> 13) n ->
  not_line_ending (n ++ nl ++ rest) = POk (n, nl ++ rest).
Proof.
  induction n as [|b n IH]; intros rest H; [reflexivity|].
  inversion H as [|? ? [H10 H13] Hn]; subst. cbn [app not_line_ending].
  destruct (N.eqb_spec b 10); [contradiction|]. destruct (N.eqb_spec b 13); [contradiction|].
  rewrite IH by assumption. reflexivity.
Qed.

(* ------------------------------------------------------------------ *)
(** ** One symbol line *)

Definition kind_char (k : skind) : N :=
  match k with
  | KIn => 105 | KOut => 111 | KBad => 98 | KInv => 99 | KJust => 106 | KFair => 102 | KLatch => 108
  end.

Lemma sym_kind_char k i r : sym_kind (kind_char k :: dec i ++ r) = Some (k, dec i ++ r).
Proof.
  destruct k; try reflexivity.
  destruct (dec_head i) as (d & t & E & Hd). rewrite E. cbn [app kind_char sym_kind].
  change (99 =? 105) with false. change (99 =? 111) with false. change (99 =? 98) with false.
  change (99 =? 99) with true. cbn match. rewrite Hd. reflexivity.
Qed.

Lemma sym_entry_print k i name rest : i < two64 -> name_ok name ->
  sym_entry (kind_char k :: dec i ++ sp ++ name ++ nl ++ rest) = POk (Some (k, i, name), rest).
Proof.
  intros Hi Hn. destruct (name_ok_facts name Hn) as (H1 & H2 & _).
  unfold sym_entry. rewrite sym_kind_char.
  rewrite p_u64_dec by side. cbn [pbind].
  rewrite space1_sp.
  2:{ destruct name; [reflexivity|exact H2]. }
  cbn [pbind]. rewrite not_line_ending_name by assumption. cbn [pbind].
  cbn [app line_ending_or_eof nl line_ending]. change (10 =? 10) with true. cbn match. cbn [pbind].
  rewrite trim_end_ok by assumption. reflexivity.
Qed.

Lemma sym_entry_nil : sym_entry [] = POk (None, []).
Proof. reflexivity. Qed.

(* ------------------------------------------------------------------ *)
(** ** The six name vectors as slots *)

Definition slot_get (k : skind) (st : asyms) : anames :=
  match k with
  | KIn | KLatch => sy_in st | KOut => sy_out st | KBad => sy_bad st
  | KInv => sy_inv st | KJust => sy_just st | KFair => sy_fair st
  end.

Definition slot_set (k : skind) (st : asyms) (v : anames) : asyms :=
  match k with
  | KIn | KLatch => mkSyms v (sy_out st) (sy_bad st) (sy_inv st) (sy_just st) (sy_fair st)
  | KOut => mkSyms (sy_in st) v (sy_bad st) (sy_inv st) (sy_just st) (sy_fair st)
  | KBad => mkSyms (sy_in st) (sy_out st) v (sy_inv st) (sy_just st) (sy_fair st)
  | KInv => mkSyms (sy_in st) (sy_out st) (sy_bad st) v (sy_just st) (sy_fair st)
  | KJust => mkSyms (sy_in st) (sy_out st) (sy_bad st) (sy_inv st) v (sy_fair st)
  | KFair => mkSyms (sy_in st) (sy_out st) (sy_bad st) (sy_inv st) (sy_just st) v
  end.

Definition slot_count (h : aheader) (k : skind) : N :=
  match k with
  | KIn | KLatch => h_in h + h_lat h | KOut => h_out h | KBad => h_bad h
  | KInv => h_inv h | KJust => h_just h | KFair => h_fair h
  end.

Definition slot_off (h : aheader) (k : skind) : N :=
  match k with KLatch => h_in h | _ => 0 end.

Lemma sym_apply_slot h st k i name : i < sym_count h k ->
  sym_apply h st (k, i, name)
  = Some (slot_set k st (put_name (slot_get k st) (slot_count h k) (i + slot_off h k) name)).
Proof.
  intros Hi. unfold sym_apply. destruct (N.leb_spec (sym_count h k) i); [lia|].
  destruct k; cbn [slot_set slot_get slot_count slot_off]; rewrite ?N.add_0_r; reflexivity.
Qed.

Lemma slot_get_set k st v : slot_get k (slot_set k st v) = v.
Proof. destruct k; reflexivity. Qed.

Lemma slot_set_set k st v w : slot_set k (slot_set k st v) w = slot_set k st w.
Proof. destruct k; reflexivity. Qed.

Lemma slot_set_get k st : slot_set k st (slot_get k st) = st.
Proof. destruct k, st; reflexivity. Qed.

(* ------------------------------------------------------------------ *)
(** ** Filling a name vector entry by entry *)

(** effect of the symbol lines of the vector [l] (index of its first entry: [i])
    on the stored vector [acc] *)
Fixpoint fill (count : N) (i : N) (l : anames) (acc : anames) : anames :=
  match l with
  | [] => acc
  | None :: r => fill count (i + 1) r acc
  | Some n :: r => fill count (i + 1) r (put_name acc count i n)
  end.

Definition has_some (l : anames) : bool :=
  existsb (fun x => match x with Some _ => true | None => false end) l.

Lemma has_some_app a b : has_some (a ++ b) = has_some a || has_some b.
Proof. apply existsb_app. Qed.

Lemma no_some_repeat : forall l, has_some l = false -> l = repeat None (length l).
Proof.
  induction l as [|[n|] l IH]; cbn; intros H; [reflexivity|discriminate|].
  f_equal. apply IH. exact H.
Qed.

Lemma set_name_app : forall (a : anames) x b n,
  set_name (a ++ x :: b) (length a) n
  = a ++ (match x with Some old => Some (old ++ 32 :: n) | None => Some n end) :: b.
Proof.
  induction a as [|y a IH]; intros x b n; [reflexivity|]. cbn [app length set_name]. f_equal. apply IH.
Qed.

Lemma fill_app count : forall a b i acc,
  fill count i (a ++ b) acc = fill count (i + lenN a) b (fill count i a acc).
Proof.
  induction a as [|[n|] a IH]; intros b i acc; cbn [app fill].
  - rewrite lenN_nil, N.add_0_r. reflexivity.
  - rewrite IH, lenN_cons. f_equal. lia.
  - rewrite IH, lenN_cons. f_equal. lia.
Qed.

Lemma fill_spec count : forall l done acc,
  (length done + length l = N.to_nat count)%nat ->
  acc = (if has_some done then done ++ repeat None (length l) else []) ->
  fill count (lenN done) l acc = if has_some (done ++ l) then done ++ l else [].
Proof.
  induction l as [|x l IH]; intros done acc Hlen Hacc.
  - cbn [fill]. rewrite app_nil_r. subst acc. cbn [length repeat]. rewrite app_nil_r. reflexivity.
  - assert (E : done ++ x :: l = (done ++ [x]) ++ l) by (rewrite <- app_assoc; reflexivity).
    assert (Ei : lenN done + 1 = lenN (done ++ [x])).
    { unfold lenN. rewrite app_length. cbn [length]. lia. }
    destruct x as [n|]; cbn [fill]; rewrite E, Ei; apply IH.
    + rewrite app_length. cbn [length] in *. lia.
    + rewrite has_some_app. cbn [has_some existsb]. rewrite orb_true_r.
      subst acc. unfold put_name. cbn [length repeat].
      destruct (has_some done) eqn:Hs.
      * replace (N.to_nat (lenN done)) with (length done) by (unfold lenN; lia).
        destruct (done ++ None :: repeat None (length l)) eqn:Ed.
        { destruct done; discriminate. }
        rewrite <- Ed. rewrite set_name_app. rewrite <- app_assoc. reflexivity.
      * replace (N.to_nat count) with (length done + S (length l))%nat by (cbn [length] in Hlen; lia).
        rewrite repeat_app. cbn [repeat].
        rewrite (no_some_repeat done Hs) at 3.
        replace (N.to_nat (lenN done)) with (length (repeat (@None aname) (length done)))
          by (rewrite repeat_length; unfold lenN; lia).
        rewrite set_name_app. rewrite <- app_assoc. rewrite <- (no_some_repeat done Hs). reflexivity.
    + rewrite app_length. cbn [length] in *. lia.
    + rewrite has_some_app. cbn [has_some existsb]. rewrite orb_false_r.
      subst acc. destruct (has_some done); [|reflexivity].
      cbn [length repeat]. rewrite <- app_assoc. reflexivity.
Qed.

(** a complete vector written into an empty slot is the vector (or stays empty
    when it has no name) *)
Lemma fill_complete count l :
  names_ok_b count l = true -> fill count 0 l [] = l.
Proof.
  unfold names_ok_b. destruct l as [|x l]; [reflexivity|].
  set (v := x :: l). rewrite !andb_true_iff. intros [[Hlen Hsome] _].
  apply N.eqb_eq in Hlen.
  pose proof (fill_spec count v [] [] ) as H. cbn [length has_some existsb app] in H.
  change (lenN []) with 0 in H. rewrite H; [|unfold lenN in Hlen; lia|reflexivity].
  fold (has_some v). unfold has_some. rewrite Hsome. reflexivity.
Qed.

(* ------------------------------------------------------------------ *)
(** ** The loop *)

Lemma sym_loop_mono h : forall f f' st bs x,
  sym_loop f h st bs = POk x -> (f <= f')%nat -> sym_loop f' h st bs = POk x.
Proof.
  induction f as [|f IH]; intros f' st bs x H Hle; [discriminate|].
  destruct f' as [|f']; [lia|]. cbn [sym_loop] in *.
  destruct (sym_entry bs) as [[[e|] r]| |]; cbn [pbind] in *; try discriminate; [|exact H].
  destruct (sym_apply h st e); [|discriminate]. apply (IH f' _ _ _ H). lia.
Qed.

Fixpoint count_some (l : anames) : nat :=
  match l with
  | [] => O
  | Some _ :: r => S (count_some r)
  | None :: r => count_some r
  end.

Lemma count_some_le_print c : forall l i, (count_some l <= length (print_names c i l))%nat.
Proof.
  induction l as [|[n|] l IH]; intros i; cbn [count_some print_names]; [lia| |].
  - rewrite app_length. cbn [length]. specialize (IH (i + 1)). lia.
  - cbn [app]. apply IH.
Qed.

(** reading the lines of one vector: the state's slot is filled *)
Lemma sym_loop_names h k : forall (l : anames) i st f rest x,
  (forall j n, nth_error l j = Some (Some n) ->
               name_ok n /\ i + N.of_nat j < sym_count h k /\ i + N.of_nat j < two64) ->
  sym_loop f h (slot_set k st (fill (slot_count h k) (i + slot_off h k) l (slot_get k st))) rest = POk x ->
  sym_loop (count_some l + f) h st (print_names (kind_char k) i l ++ rest) = POk x.
Proof.
  induction l as [|[n|] l IH]; intros i st f rest x Hl H.
  - cbn [fill] in H. rewrite slot_set_get in H. exact H.
  - cbn [count_some print_names plus sym_loop].
    destruct (Hl O n eq_refl) as (Hn & Hc & Hi). replace (i + N.of_nat 0) with i in * by lia.
    cbn [app]. rewrite <- !app_assoc. rewrite sym_entry_print by assumption. cbn [pbind].
    rewrite sym_apply_slot by assumption.
    apply IH.
    + intros j m Hj. replace (i + 1 + N.of_nat j) with (i + N.of_nat (S j)) by lia. apply Hl. exact Hj.
    + rewrite slot_get_set, slot_set_set. cbn [fill] in H.
      replace (i + 1 + slot_off h k) with (i + slot_off h k + 1) by lia. exact H.
  - cbn [count_some print_names app]. apply IH.
    + intros j m Hj. replace (i + 1 + N.of_nat j) with (i + N.of_nat (S j)) by lia. apply Hl. exact Hj.
    + cbn [fill] in H. replace (i + 1 + slot_off h k) with (i + slot_off h k + 1) by lia. exact H.
Qed.

(* ------------------------------------------------------------------ *)
(** ** The whole table *)

Lemma names_ok_nth count l j n : names_ok_b count l = true -> nth_error l j = Some (Some n) ->
  name_ok n /\ N.of_nat j < count.
Proof.
  unfold names_ok_b. destruct l as [|x l]; [destruct j; discriminate|].
  set (v := x :: l). rewrite !andb_true_iff. intros [[Hlen _] Hok] Hj.
  apply N.eqb_eq in Hlen. split.
  - rewrite forallb_forall in Hok. apply (Hok (Some n)). eapply nth_error_In; exact Hj.
  - assert (j < length v)%nat by (apply nth_error_Some; congruence). unfold lenN in Hlen. lia.
Qed.

Lemma names_ok_length count l : names_ok_b count l = true -> l = [] \/ lenN l = count.
Proof.
  unfold names_ok_b. destruct l; [left; reflexivity|]. rewrite !andb_true_iff.
  intros [[Hlen _] _]. right. apply N.eqb_eq. exact Hlen.
Qed.

Lemma nth_error_skipn' {A} : forall n (l : list A) j, nth_error (skipn n l) j = nth_error l (n + j).
Proof.
  induction n as [|n IH]; intros l j; [reflexivity|]. destruct l as [|x l]; [destruct j; reflexivity|].
  cbn. apply IH.
Qed.

Theorem symbol_table_print h (s : asyms) :
  h_in h + h_lat h <= max_capacity -> h_out h <= max_capacity -> h_bad h <= max_capacity ->
  h_inv h <= max_capacity -> h_just h <= max_capacity -> h_fair h <= max_capacity ->
  names_ok_b (h_in h + h_lat h) (sy_in s) = true -> names_ok_b (h_out h) (sy_out s) = true ->
  names_ok_b (h_bad h) (sy_bad s) = true -> names_ok_b (h_inv h) (sy_inv s) = true ->
  names_ok_b (h_just h) (sy_just s) = true -> names_ok_b (h_fair h) (sy_fair s) = true ->
  let ni := N.to_nat (h_in h) in
  symbol_table h
    (print_names 105 0 (firstn ni (sy_in s)) ++ print_names 108 0 (skipn ni (sy_in s))
     ++ print_names 111 0 (sy_out s) ++ print_names 98 0 (sy_bad s) ++ print_names 99 0 (sy_inv s)
     ++ print_names 106 0 (sy_just s) ++ print_names 102 0 (sy_fair s))
  = POk (s, []).
Proof.
  intros Ci Co Cb Cc Cj Cf Hi Ho Hb Hc Hj Hf ni.
  unfold symbol_table.
  set (bs := print_names 105 0 _ ++ _).
  assert (Hcap : max_capacity < two64) by reflexivity.
  (* side conditions of the chunks *)
  assert (Si : forall j n, nth_error (firstn ni (sy_in s)) j = Some (Some n) ->
                           name_ok n /\ 0 + N.of_nat j < sym_count h KIn /\ 0 + N.of_nat j < two64).
  { intros j n Hn.
    assert (j < ni)%nat.
    { assert (j < length (firstn ni (sy_in s)))%nat by (apply nth_error_Some; congruence).
      rewrite firstn_length in *. lia. }
    rewrite nth_error_firstn in Hn by assumption.
    destruct (names_ok_nth _ _ _ _ Hi Hn). cbn [sym_count]. split; [assumption|]. subst ni. lia. }
  assert (Sl : forall j n, nth_error (skipn ni (sy_in s)) j = Some (Some n) ->
                           name_ok n /\ 0 + N.of_nat j < sym_count h KLatch /\ 0 + N.of_nat j < two64).
  { intros j n Hn. rewrite nth_error_skipn' in Hn.
    destruct (names_ok_nth _ _ _ _ Hi Hn). cbn [sym_count]. split; [assumption|]. subst ni. lia. }
  assert (So : forall count l, names_ok_b count l = true -> count <= max_capacity ->
               forall j n, nth_error l j = Some (Some n) ->
                           name_ok n /\ 0 + N.of_nat j < count /\ 0 + N.of_nat j < two64).
  { intros count l Hl Hcnt j n Hn. destruct (names_ok_nth _ _ _ _ Hl Hn). split; [assumption|]. lia. }
  eapply sym_loop_mono.
  - unfold bs.
    apply (sym_loop_names h KIn _ 0 no_syms); [exact Si|].
    apply (sym_loop_names h KLatch _ 0); [exact Sl|].
    apply (sym_loop_names h KOut _ 0); [apply So; assumption|].
    apply (sym_loop_names h KBad _ 0); [apply So; assumption|].
    apply (sym_loop_names h KInv _ 0); [apply So; assumption|].
    apply (sym_loop_names h KJust _ 0); [apply So; assumption|].
    rewrite <- (app_nil_r (print_names 102 0 (sy_fair s))).
    apply (sym_loop_names h KFair _ 0 _ 1%nat); [apply So; assumption|].
    cbn [sym_loop]. rewrite sym_entry_nil. cbn [pbind].
    cbn [slot_set slot_get slot_count slot_off no_syms sy_in sy_out sy_bad sy_inv sy_just sy_fair].
    rewrite !N.add_0_r, ?N.add_0_l.
    rewrite (fill_complete _ _ Ho), (fill_complete _ _ Hb), (fill_complete _ _ Hc),
      (fill_complete _ _ Hj), (fill_complete _ _ Hf).
    (* the input vector: its two chunks together are the vector *)
    replace (fill (h_in h + h_lat h) (h_in h) (skipn ni (sy_in s))
                  (fill (h_in h + h_lat h) 0 (firstn ni (sy_in s)) []))
      with (sy_in s); [destruct s; reflexivity|].
    destruct (names_ok_length _ _ Hi) as [E|E].
    + rewrite E. rewrite firstn_nil, skipn_nil. reflexivity.
    + rewrite <- (fill_complete _ _ Hi) at 1.
      rewrite <- (firstn_skipn ni (sy_in s)) at 1. rewrite fill_app. f_equal.
      unfold lenN in *. rewrite firstn_length. subst ni. lia.
  - (* fuel *)
    unfold bs. rewrite !app_length.
    pose proof (count_some_le_print 105 (firstn ni (sy_in s)) 0).
    pose proof (count_some_le_print 108 (skipn ni (sy_in s)) 0).
    pose proof (count_some_le_print 111 (sy_out s) 0).
    pose proof (count_some_le_print 98 (sy_bad s) 0).
    pose proof (count_some_le_print 99 (sy_inv s) 0).
    pose proof (count_some_le_print 106 (sy_just s) 0).
    pose proof (count_some_le_print 102 (sy_fair s) 0).
    lia.
Qed.
