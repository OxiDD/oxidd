(** * C18p proofs, part 5: totality of the model reader

    Every parser of the model consumes input on success and never reports
    [PFuel]; the count-driven loops get the length of their input plus one as
    fuel, one unit per iteration, and every iteration consumes at least one
    byte -- so [parse_aiger] returns a problem or a diagnostic for ALL byte
    strings ([parse_aiger_total]). *)
From Coq Require Import List NArith ZArith Bool Arith Lia.
From OxiVerif Require Import IO.Aiger IO.AigerParse.
Import ListNotations.
Open Scope N_scope.

Arguments N.add : simpl never.
Arguments N.sub : simpl never.
Arguments N.mul : simpl never.
Arguments N.div : simpl never.
Arguments N.modulo : simpl never.
Arguments N.ltb : simpl never.
Arguments N.leb : simpl never.
Arguments N.eqb : simpl never.
Arguments N.odd : simpl never.
Arguments N.land : simpl never.
Arguments N.lor : simpl never.
Arguments N.shiftl : simpl never.

(** success consumes at least one byte / does not produce input; never [PFuel] *)
Definition strict {A} (r : pres (A * list N)) (bs : list N) : Prop :=
  match r with POk (_, r') => (length r' < length bs)%nat | PErr => True | PFuel => False end.
Definition weak {A} (r : pres (A * list N)) (bs : list N) : Prop :=
  match r with POk (_, r') => (length r' <= length bs)%nat | PErr => True | PFuel => False end.
(** the same for parsers that only return the remaining input *)
Definition strict0 (r : pres (list N)) (bs : list N) : Prop :=
  match r with POk r' => (length r' < length bs)%nat | PErr => True | PFuel => False end.
Definition weak0 (r : pres (list N)) (bs : list N) : Prop :=
  match r with POk r' => (length r' <= length bs)%nat | PErr => True | PFuel => False end.

Lemma strict_weak {A} (r : pres (A * list N)) bs : strict r bs -> weak r bs.
Proof. destruct r as [[x r']| |]; cbn [strict weak]; auto. lia. Qed.

Lemma strict0_weak0 r bs : strict0 r bs -> weak0 r bs.
Proof. destruct r as [r'| |]; cbn [strict0 weak0]; auto. lia. Qed.

Lemma strict_bind {A B} (r : pres (A * list N)) (k : A * list N -> pres (B * list N)) bs :
  strict r bs -> (forall x r', weak (k (x, r')) r') -> strict (pbind r k) bs.
Proof.
  destruct r as [[x r']| |]; cbn [strict pbind]; intros H Hk; try exact H. specialize (Hk x r').
  destruct (k (x, r')) as [[y r'']| |]; cbn [strict weak] in *; try exact Hk. lia.
Qed.

Lemma weak_bind {A B} (r : pres (A * list N)) (k : A * list N -> pres (B * list N)) bs :
  weak r bs -> (forall x r', weak (k (x, r')) r') -> weak (pbind r k) bs.
Proof.
  destruct r as [[x r']| |]; cbn [weak pbind]; intros H Hk; try exact H. specialize (Hk x r').
  destruct (k (x, r')) as [[y r'']| |]; cbn [weak] in *; try exact Hk. lia.
Qed.

Lemma strict0_bind {B} (r : pres (list N)) (k : list N -> pres (B * list N)) bs :
  strict0 r bs -> (forall r', weak (k r') r') -> strict (pbind r k) bs.
Proof.
  destruct r as [r'| |]; cbn [strict0 pbind]; intros H Hk; try exact H. specialize (Hk r').
  destruct (k r') as [[y r'']| |]; cbn [strict weak] in *; try exact Hk. lia.
Qed.

Lemma weak0_bind {B} (r : pres (list N)) (k : list N -> pres (B * list N)) bs :
  weak0 r bs -> (forall r', weak (k r') r') -> weak (pbind r k) bs.
Proof.
  destruct r as [r'| |]; cbn [weak0 pbind]; intros H Hk; try exact H. specialize (Hk r').
  destruct (k r') as [[y r'']| |]; cbn [weak] in *; try exact Hk. lia.
Qed.

Lemma strict_shorter {A} (r : pres (A * list N)) r0 bs :
  (length r0 <= length bs)%nat -> strict r r0 -> strict r bs.
Proof. destruct r as [[x r']| |]; cbn [strict]; auto. lia. Qed.

Lemma space0_len : forall bs, (length (space0 bs) <= length bs)%nat.
Proof.
  induction bs as [|b r IH]; cbn; [lia|]. destruct (is_sp b); cbn; lia.
Qed.

Lemma space1_len bs : strict0 (space1 bs) bs.
Proof.
  destruct bs as [|b r]; cbn; [exact I|]. destruct (is_sp b); cbn; [|exact I].
  pose proof (space0_len r). lia.
Qed.

Lemma line_ending_len bs : strict0 (line_ending bs) bs.
Proof.
  destruct bs as [|b r]; cbn; [exact I|]. destruct (b =? 10); cbn; [lia|].
  destruct (b =? 13); cbn; [|exact I]. destruct r as [|c r']; cbn; [exact I|].
  destruct (c =? 10); cbn; [lia|exact I].
Qed.

Lemma eol_or_eof_len bs : weak0 (eol_or_eof bs) bs.
Proof.
  unfold eol_or_eof. pose proof (space0_len bs) as H. destruct (space0 bs) as [|b r] eqn:E; [cbn; lia|].
  cbn [length] in H.
  pose proof (line_ending_len (b :: r)) as H1. unfold strict0 in H1.
  destruct (line_ending (b :: r)); cbn in *; try exact I; try contradiction. lia.
Qed.

Lemma digits_val_len : forall bs acc, (length (snd (digits_val bs acc)) <= length bs)%nat.
Proof.
  induction bs as [|b r IH]; intros acc; cbn; [lia|]. destruct (is_digit b); cbn; [|lia].
  specialize (IH (acc * 10 + (b - 48))). lia.
Qed.

Lemma p_u64_len bs : strict (p_u64 bs) bs.
Proof.
  unfold p_u64. destruct bs as [|b r]; [exact I|]. destruct (is_digit b) eqn:E; [|exact I].
  cbn [digits_val]. rewrite E.
  pose proof (digits_val_len r (0 * 10 + (b - 48))).
  destruct (digits_val r (0 * 10 + (b - 48))) as [v r']. cbn [snd] in *.
  destruct (v <? two64); cbn; [lia|exact I].
Qed.

Lemma p_usize_len bs : strict (p_usize bs) bs.
Proof.
  unfold p_usize. apply strict_bind; [apply p_u64_len|intros v r].
  destruct (max_capacity <? v); [exact I|cbn; lia].
Qed.

Lemma p_literal_len vars bs : strict (p_literal vars bs) bs.
Proof.
  unfold p_literal. apply strict_bind; [apply p_u64_len|intros lit r].
  destruct (vars <? lit / 2); [exact I|cbn; lia].
Qed.

Lemma latch_init_ext_len latch bs : weak (latch_init_ext latch bs) bs.
Proof.
  unfold latch_init_ext.
  pose proof (space1_len bs) as H1. unfold strict0 in H1.
  destruct (space1 bs) as [r1| |]; try contradiction; [|cbn; lia].
  pose proof (p_u64_len r1) as H2. unfold strict in H2.
  destruct (p_u64 r1) as [[v r2]| |]; try contradiction; [|cbn; lia].
  destruct (v =? 0); [cbn; lia|]. destruct (v =? 1); [cbn; lia|]. destruct (v =? latch); cbn; [lia|exact I].
Qed.

Lemma sp_usize_len bs : strict (sp_usize bs) bs.
Proof.
  unfold sp_usize. apply strict0_bind; [apply space1_len|intros r]. apply strict_weak, p_usize_len.
Qed.

Lemma eol_tail_len {A} (x : A) r : weak (do r' <- eol_or_eof r; POk (x, r')) r.
Proof. apply weak0_bind; [apply eol_or_eof_len|intros r']. cbn. lia. Qed.

Lemma literal_line_len vars bs : strict (literal_line vars bs) bs.
Proof.
  unfold literal_line. apply strict_bind; [apply p_literal_len|intros lit r]. apply eol_tail_len.
Qed.

Lemma usize_line_len bs : strict (usize_line bs) bs.
Proof.
  unfold usize_line. apply strict_bind; [apply p_usize_len|intros n r]. apply eol_tail_len.
Qed.

Lemma input_line_len vars bs : strict (input_line vars bs) bs.
Proof.
  unfold input_line. apply strict_bind; [apply p_literal_len|intros lit r].
  destruct (N.odd lit); [exact I|apply eol_tail_len].
Qed.

Lemma latch_line_len vars bs : strict (latch_line vars bs) bs.
Proof.
  unfold latch_line. apply strict_bind; [apply p_literal_len|intros lit r1].
  apply weak0_bind; [apply strict0_weak0, space1_len|intros r2].
  apply weak_bind; [apply strict_weak, p_literal_len|intros inp r3].
  destruct (N.odd lit); [exact I|].
  apply weak_bind; [apply latch_init_ext_len|intros init r4]. apply eol_tail_len.
Qed.

Lemma bin_latch_len vars fl i bs : strict (bin_latch vars fl i bs) bs.
Proof.
  unfold bin_latch. apply strict_bind; [apply p_literal_len|intros lit r1].
  apply weak_bind; [apply latch_init_ext_len|intros init r2]. apply eol_tail_len.
Qed.

Lemma and_line_len vars bs : strict (and_line vars bs) bs.
Proof.
  unfold and_line. apply strict_bind; [apply p_literal_len|intros lit r1].
  apply weak0_bind; [apply strict0_weak0, space1_len|intros r2].
  apply weak_bind; [apply strict_weak, p_literal_len|intros in1 r3].
  apply weak0_bind; [apply strict0_weak0, space1_len|intros r4].
  apply weak_bind; [apply strict_weak, p_literal_len|intros in2 r5].
  apply weak0_bind; [apply eol_or_eof_len|intros r6].
  destruct (N.odd lit); [exact I|cbn; lia].
Qed.

Lemma usize_7bit_from_len : forall bs shift val, strict (usize_7bit_from bs shift val) bs.
Proof.
  induction bs as [|b r IH]; intros shift val; cbn [usize_7bit_from]; [exact I|].
  destruct (N.land b 128 =? 0); [cbn; lia|].
  specialize (IH (shift + 7) (N.lor val (N.land (N.shiftl (N.land b 127) (shift mod 64)) (two64 - 1)))).
  unfold strict in *. destruct (usize_7bit_from r _ _) as [[? ?]| |]; cbn [length]; try exact I; try contradiction. lia.
Qed.

Lemma bin_and_len i bs : strict (bin_and i bs) bs.
Proof.
  unfold bin_and, usize_7bit. apply strict_bind; [apply usize_7bit_from_len|intros d1 r1].
  apply weak_bind; [apply strict_weak, usize_7bit_from_len|intros d2 r2].
  destruct (and_gate_bin (i * 2) d1 d2); [cbn; lia|exact I].
Qed.

(* ------------------------------------------------------------------ *)
(** ** Loops *)

Lemma collect_i_len {A} (p : N -> list N -> pres (A * list N)) :
  (forall i bs, strict (p i bs) bs) ->
  forall f n i bs, (length bs < f)%nat -> weak (collect_i f n i p bs) bs.
Proof.
  intros Hp. induction f as [|f IH]; intros n i bs Hf; [lia|].
  cbn [collect_i]. destruct (n =? 0); [cbn; lia|].
  pose proof (Hp i bs) as H. unfold strict in H.
  destruct (p i bs) as [[x r]| |]; try exact I; try contradiction.
  assert (Hr : (length r < f)%nat) by lia.
  specialize (IH (n - 1) (i + 1) r Hr). unfold weak in *.
  destruct (collect_i f (n - 1) (i + 1) p r) as [[xs r']| |]; try exact I; try contradiction. lia.
Qed.

Lemma collect_len {A} (p : list N -> pres (A * list N)) n bs :
  (forall bs, strict (p bs) bs) -> weak (collect n p bs) bs.
Proof. intros Hp. unfold collect. apply collect_i_len; [intros; apply Hp|lia]. Qed.

Lemma collect_from_len {A} (p : N -> list N -> pres (A * list N)) n i bs :
  (forall i bs, strict (p i bs) bs) -> weak (collect_from n i p bs) bs.
Proof. intros Hp. unfold collect_from. apply collect_i_len; [exact Hp|lia]. Qed.

Lemma p_justice_len vars : forall lens bs, weak (p_justice vars lens bs) bs.
Proof.
  induction lens as [|n lens IH]; intros bs; cbn [p_justice]; [cbn; lia|].
  apply weak_bind; [apply collect_len, literal_line_len|intros js r].
  apply weak_bind; [apply IH|intros jss r']. cbn. lia.
Qed.

Lemma p_props_len h bs : weak (p_props h bs) bs.
Proof.
  unfold p_props.
  apply weak_bind; [apply collect_len, literal_line_len|intros outs r1].
  apply weak_bind; [apply collect_len, literal_line_len|intros bad r2].
  apply weak_bind; [apply collect_len, literal_line_len|intros inv r3].
  apply weak_bind; [apply collect_len, usize_line_len|intros jlens r4].
  apply weak_bind; [apply p_justice_len|intros just r5].
  apply weak_bind; [apply collect_len, literal_line_len|intros fair r6]. cbn. lia.
Qed.

(* ------------------------------------------------------------------ *)
(** ** Bodies, symbol table, the parser *)

Definition nofuel {A} (r : pres A) : Prop := r <> PFuel.

Lemma weak_nofuel {A} (r : pres (A * list N)) bs : weak r bs -> nofuel r.
Proof. destruct r as [[x r']| |]; cbn [weak]; intros H; [discriminate|discriminate|contradiction]. Qed.

Lemma strict0_nofuel (r : pres (list N)) bs : strict0 r bs -> nofuel r.
Proof. destruct r as [r'| |]; cbn [strict0]; intros H; [discriminate|discriminate|contradiction]. Qed.

Lemma nofuel_bind {A B} (r : pres A) (k : A -> pres B) :
  nofuel r -> (forall x, nofuel (k x)) -> nofuel (pbind r k).
Proof.
  destruct r as [x| |]; cbn [pbind]; intros H Hk; [apply Hk|discriminate|contradiction H; reflexivity].
Qed.

Lemma parse_bin_body_nofuel h bs : nofuel (parse_bin_body h bs).
Proof.
  unfold parse_bin_body.
  apply nofuel_bind; [apply (weak_nofuel _ bs), collect_from_len, bin_latch_len|intros [lats r1]].
  apply nofuel_bind; [apply (weak_nofuel _ r1), p_props_len|intros [props r2]].
  apply nofuel_bind; [apply (weak_nofuel _ r2), collect_from_len, bin_and_len|intros [ands r3]].
  discriminate.
Qed.

Lemma parse_ascii_body_nofuel ca h bs : nofuel (parse_ascii_body ca h bs).
Proof.
  unfold parse_ascii_body.
  apply nofuel_bind; [apply (weak_nofuel _ bs), collect_len, input_line_len|intros [ins r1]].
  apply nofuel_bind; [apply (weak_nofuel _ r1), collect_len, latch_line_len|intros [lats r2]].
  apply nofuel_bind; [apply (weak_nofuel _ r2), p_props_len|intros [props r3]].
  apply nofuel_bind; [apply (weak_nofuel _ r3), collect_len, and_line_len|intros [ands r4]].
  unfold nofuel.
  destruct (define_all _ ins _ _); [|discriminate].
  destruct (define_all _ _ _ _); [|discriminate].
  destruct (define_all _ _ _ _); [|discriminate].
  destruct (lits_undef _); [discriminate|]. destruct (ca && _); discriminate.
Qed.

Lemma not_line_ending_len : forall bs, weak (not_line_ending bs) bs.
Proof.
  induction bs as [|b t IH]; cbn [not_line_ending]; [cbn; lia|].
  destruct (b =? 10); [cbn; lia|]. destruct (b =? 13).
  - destruct t as [|c t']; [exact I|]. destruct (c =? 10); [cbn; lia|exact I].
  - unfold weak in *. destruct (not_line_ending t) as [[l' r']| |]; cbn [length]; [lia|exact I|contradiction].
Qed.

Lemma sym_kind_len bs k r : sym_kind bs = Some (k, r) -> (length r < length bs)%nat.
Proof.
  unfold sym_kind. destruct bs as [|b t]; [discriminate|].
  repeat match goal with
         | |- context [if ?c then _ else _] => destruct c
         end; intros H; try discriminate; try (inversion H; subst; cbn; lia).
  destruct t as [|d t']; [discriminate|]. destruct (is_digit d); [inversion H; subst; cbn; lia|discriminate].
Qed.

(** an entry consumes input; the end of the table does not *)
Lemma sym_entry_len bs :
  match sym_entry bs with
  | POk (Some _, r) => (length r < length bs)%nat
  | POk (None, r) => r = bs
  | PErr => True
  | PFuel => False
  end.
Proof.
  unfold sym_entry. destruct (sym_kind bs) as [[k r0]|] eqn:Ek; [|reflexivity].
  apply sym_kind_len in Ek.
  pose proof (p_u64_len r0) as H1. unfold strict in H1.
  destruct (p_u64 r0) as [[i r1]| |]; cbn [pbind]; try exact I; try contradiction.
  pose proof (space1_len r1) as H2. unfold strict0 in H2.
  destruct (space1 r1) as [r2| |]; cbn [pbind]; try exact I; try contradiction.
  pose proof (not_line_ending_len r2) as H3. unfold weak in H3.
  destruct (not_line_ending r2) as [[name r3]| |]; cbn [pbind]; try exact I; try contradiction.
  unfold line_ending_or_eof. destruct r3 as [|c r3']; cbn [pbind]; [cbn in *; lia|].
  pose proof (line_ending_len (c :: r3')) as H4. unfold strict0 in H4.
  destruct (line_ending (c :: r3')) as [r4| |]; cbn [pbind]; try exact I; try contradiction. lia.
Qed.

Lemma sym_loop_nofuel h : forall f st bs, (length bs < f)%nat -> nofuel (sym_loop f h st bs).
Proof.
  induction f as [|f IH]; intros st bs Hf; [lia|]. unfold nofuel in *. cbn [sym_loop].
  pose proof (sym_entry_len bs) as H.
  destruct (sym_entry bs) as [[[e|] r]| |]; cbn [pbind]; try discriminate; try contradiction.
  destruct (sym_apply h st e); [|discriminate]. apply IH. lia.
Qed.

Lemma p_header_nofuel bs : nofuel (p_header bs).
Proof.
  unfold p_header. apply nofuel_bind; [|intros [bin r0]].
  { unfold p_format, nofuel.
    repeat match goal with
           | |- match ?x with _ => _ end <> _ => destruct x; try discriminate
           | |- (if ?c then _ else _) <> _ => destruct c; try discriminate
           end. }
  apply nofuel_bind; [apply (weak_nofuel _ r0), strict_weak, sp_usize_len|intros [vars r1]].
  apply nofuel_bind; [apply (weak_nofuel _ r1), strict_weak, sp_usize_len|intros [ins r2]].
  apply nofuel_bind; [apply (weak_nofuel _ r2), strict_weak, sp_usize_len|intros [lat r3]].
  apply nofuel_bind; [apply (weak_nofuel _ r3), strict_weak, sp_usize_len|intros [outs r4]].
  apply nofuel_bind; [apply (weak_nofuel _ r4), strict_weak, sp_usize_len|intros [nands r5]].
  destruct (opt_nums 4 r5) as [o r6].
  apply nofuel_bind; [|intros r7].
  - pose proof (eol_or_eof_len r6) as H. destruct (eol_or_eof r6); [discriminate|discriminate|contradiction].
  - unfold nofuel. destruct bin; [destruct (_ =? _)|destruct (_ <? _)]; discriminate.
Qed.

(** (a) the model reader is total: a problem or a diagnostic for every input *)
Theorem parse_aiger_total ca bs : parse_aiger ca bs <> PFuel.
Proof.
  change (nofuel (parse_aiger ca bs)). unfold parse_aiger.
  apply nofuel_bind; [apply p_header_nofuel|intros [h r0]].
  apply nofuel_bind; [|intros [b r1]].
  { destruct (h_bin h); [apply parse_bin_body_nofuel|apply parse_ascii_body_nofuel]. }
  apply nofuel_bind; [apply sym_loop_nofuel, Nat.lt_succ_diag_r|intros [syms r2]].
  unfold nofuel. destruct (comment_or_eof r2); discriminate.
Qed.

(** the result does not depend on the fuel once it exceeds the input length:
    stated for the generic loop *)
Theorem collect_i_fuel_irrelevant {A} (p : N -> list N -> pres (A * list N)) :
  (forall i bs, strict (p i bs) bs) ->
  forall f1 f2 n i bs, (length bs < f1)%nat -> (length bs < f2)%nat ->
  collect_i f1 n i p bs = collect_i f2 n i p bs.
Proof.
  intros Hp. induction f1 as [|f1 IH]; intros f2 n i bs H1 H2; [lia|].
  destruct f2 as [|f2]; [lia|]. cbn [collect_i]. destruct (n =? 0); [reflexivity|].
  pose proof (Hp i bs) as H. unfold strict in H.
  destruct (p i bs) as [[x r]| |]; try reflexivity.
  rewrite (IH f2 (n - 1) (i + 1) r) by lia. reflexivity.
Qed.
