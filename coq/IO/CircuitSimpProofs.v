(** * The model simplifier is sound (coq/IO/Circuit.v, [simplify])

    Evaluation lemmas (fuel monotonicity, topologically sorted circuits), the
    semantic lemma about [finish] (one gate), and the invariant of the DFS
    [inner] / [visit_inputs] / [simplify_roots]. *)

From Coq Require Import List Bool Arith Lia Permutation.
From OxiVerif Require Import Base.ListFacts IO.Circuit IO.CircuitProofs.
Import ListNotations.

(* ------------------------------------------------------------------ *)
(** ** Lists *)

Lemma nth_error_set_nth_eq : forall A (l : list A) i x,
  i < length l -> nth_error (set_nth l i x) i = Some x.
Proof.
  induction l as [|y r IH]; intros i x H; simpl in *; [lia|].
  destruct i; simpl; [reflexivity | apply IH; lia].
Qed.

Lemma nth_error_set_nth_neq : forall A (l : list A) i j x,
  i <> j -> nth_error (set_nth l i x) j = nth_error l j.
Proof.
  induction l as [|y r IH]; intros i j x H; simpl; [reflexivity|].
  destruct i, j; simpl; try reflexivity; try congruence. apply IH. congruence.
Qed.

Lemma length_set_nth : forall A (l : list A) i x, length (set_nth l i x) = length l.
Proof.
  induction l as [|y r IH]; intros i x; simpl; [reflexivity|].
  destruct i; simpl; [reflexivity | f_equal; apply IH].
Qed.

Lemma nth_error_repeat : forall A (x : A) n i, i < n -> nth_error (repeat x n) i = Some x.
Proof. intros A x n i H. exact (List.nth_error_repeat x H). Qed.

(* ------------------------------------------------------------------ *)
(** ** Evaluation *)

Lemma all_some_map_Some : forall bs, all_some (map Some bs) = Some bs.
Proof. induction bs as [|b r IH]; simpl; [reflexivity | rewrite IH; reflexivity]. Qed.

Lemma all_some_inv : forall l bs, all_some l = Some bs -> l = map Some bs.
Proof.
  induction l as [|o r IH]; intros bs H; simpl in H.
  - inversion H. reflexivity.
  - destruct o as [b|]; [|discriminate]. destruct (all_some r) as [bs'|]; [|discriminate].
    inversion H. subst. simpl. f_equal. apply IH. reflexivity.
Qed.

Lemma gate_val_map_Some : forall k bs, gate_val k (map Some bs) = Some (gate_fun k bs).
Proof. intros. unfold gate_val. rewrite all_some_map_Some. reflexivity. Qed.

Lemma gate_val_Some_inv : forall k vs b, gate_val k vs = Some b ->
  exists bs, vs = map Some bs /\ b = gate_fun k bs.
Proof.
  intros k vs b H. unfold gate_val in H. destruct (all_some vs) as [bs|] eqn:E; [|discriminate].
  inversion H. exists bs. split; [apply all_some_inv; exact E | reflexivity].
Qed.

Lemma opt_xor_Some_inv : forall s o b, opt_xor s o = Some b -> exists b', o = Some b' /\ b = xorb s b'.
Proof. intros s [b'|] b H; simpl in H; [|discriminate]. inversion H. eauto. Qed.

(** values of a list of literals under a function that is total on the list *)
Lemma map_total : forall (F : lit -> option bool) (v : lit -> bool) ins,
  (forall x, In x ins -> F x = Some (v x)) -> map F ins = map Some (map v ins).
Proof.
  intros F v. induction ins as [|x r IH]; intros H; simpl; [reflexivity|].
  rewrite (H x (or_introl eq_refl)). f_equal. apply IH. intros y Hy. apply H. right. exact Hy.
Qed.

Lemma gate_val_total : forall k (F : lit -> option bool) (v : lit -> bool) ins,
  (forall x, In x ins -> F x = Some (v x)) -> gate_val k (map F ins) = Some (gate_fun k (map v ins)).
Proof. intros. rewrite (map_total F v ins) by assumption. apply gate_val_map_Some. Qed.

Lemma eval_lit_polarity : forall c a f s at_,
  eval_lit c a f (L s at_) = opt_xor s (eval_lit c a f (L false at_)).
Proof.
  intros c a f s at_. destruct at_ as [ | i | g | ]; destruct f; simpl; try reflexivity.
  - destruct s; reflexivity.
  - destruct s; reflexivity.
  - destruct (Nat.ltb i (n_inputs c)); simpl; [|reflexivity]. destruct (a i), s; reflexivity.
  - destruct (Nat.ltb i (n_inputs c)); simpl; [|reflexivity]. destruct (a i), s; reflexivity.
  - destruct (nth_error (gates c) g); [|reflexivity].
    destruct (gate_val _ _) as [b|]; simpl; [|reflexivity]. destruct b, s; reflexivity.
Qed.

Lemma eval_lit_lxor : forall c a f l b,
  eval_lit c a f (lxor l b) = opt_xor b (eval_lit c a f l).
Proof.
  intros c a f [s at_] b. unfold lxor. simpl lneg. simpl latom.
  rewrite (eval_lit_polarity c a f (xorb s b)), (eval_lit_polarity c a f s).
  destruct (eval_lit c a f (L false at_)) as [v|]; simpl; [|reflexivity].
  destruct s, b, v; reflexivity.
Qed.

(** a literal that is not a gate does not look at the fuel *)
Lemma eval_lit_nongate : forall c a f f' l,
  (forall g, latom l <> AGate g) -> eval_lit c a f l = eval_lit c a f' l.
Proof.
  intros c a f f' [s [ | i | g | ]] H; destruct f, f'; simpl; try reflexivity.
  all: exfalso; apply (H g); reflexivity.
Qed.

Lemma eval_lit_mono : forall c a f l b,
  eval_lit c a f l = Some b -> forall f', f <= f' -> eval_lit c a f' l = Some b.
Proof.
  intros c a. induction f as [|f IH]; intros l b H f' Hle.
  - destruct l as [s [ | i | g | ]]; destruct f'; simpl in *; try exact H; discriminate.
  - destruct f' as [|f']; [lia|].
    destruct l as [s [ | i | g | ]]; simpl in *; try exact H.
    destruct (nth_error (gates c) g) as [gt|]; [|discriminate].
    apply opt_xor_Some_inv in H. destruct H as [b' [H Eb]].
    apply gate_val_Some_inv in H. destruct H as [bs [Hm Eb']].
    assert (Hm' : map (eval_lit c a f') (gins gt) = map Some bs).
    { rewrite <- Hm. apply map_ext_in. intros x Hx.
      assert (Hx' : exists v, eval_lit c a f x = Some v).
      { assert (Hin : In (eval_lit c a f x) (map (eval_lit c a f) (gins gt))) by (apply in_map; exact Hx).
        rewrite Hm in Hin. apply in_map_iff in Hin. destruct Hin as [v [Ev _]]. exists v. auto. }
      destruct Hx' as [v Ev]. rewrite Ev. apply IH with (f' := f') in Ev; [exact Ev | lia]. }
    rewrite Hm', gate_val_map_Some. simpl. subst. reflexivity.
Qed.

(* ------------------------------------------------------------------ *)
(** ** Topologically sorted circuits *)

Lemma LitValid_mono : forall n j j' l, LitValid n j l -> j <= j' -> LitValid n j' l.
Proof. intros n j j' [s [ | i | g | ]] H Hle; unfold LitValid in *; simpl in *; auto. lia. Qed.

(** every gate mentions only inputs of the circuit and earlier gates *)
Definition Topo (n : nat) (gs : list gate) : Prop :=
  forall j gt, nth_error gs j = Some gt -> forall l, In l (gins gt) -> LitValid n j l.

Definition need (l : lit) : nat := match latom l with AGate g => S g | _ => 0 end.

Lemma NF_Topo : forall c, NF c -> Topo (n_inputs c) (gates c).
Proof. intros c [H _] j gt Hj l Hl. exact (nf_valid _ _ _ (H j gt Hj) l Hl). Qed.

Lemma exists_values : forall (ins : list lit) (m : nat) (F : nat -> lit -> option bool),
  (forall x, In x ins -> exists b, forall f, m <= f -> F f x = Some b) ->
  exists bs, forall f, m <= f -> map (F f) ins = map Some bs.
Proof.
  induction ins as [|x r IH]; intros m F H.
  - exists []. reflexivity.
  - destruct (H x (or_introl eq_refl)) as [b Hb].
    destruct (IH m F (fun y Hy => H y (or_intror Hy))) as [bs Hbs].
    exists (b :: bs). intros f Hf. simpl. rewrite (Hb f Hf), (Hbs f Hf). reflexivity.
Qed.

Lemma topo_stable : forall n gs a, Topo n gs ->
  forall k l, need l <= k -> LitValid n (length gs) l ->
  exists b, forall f, need l <= f -> eval_lit (mkCircuit n gs) a f l = Some b.
Proof.
  intros n gs a HT. induction k as [|k IH]; intros l Hn Hv.
  - destruct l as [s [ | i | g | ]]; unfold need, LitValid in *; simpl in *; try lia; try contradiction.
    + exists s. intros f _. destruct f; reflexivity.
    + exists (xorb s (a i)). intros f _. apply Nat.ltb_lt in Hv. destruct f; simpl; rewrite Hv; reflexivity.
  - destruct (le_lt_dec (need l) k) as [Hle|Hgt]; [apply IH; assumption|].
    destruct l as [s [ | i | g | ]]; unfold need in Hn, Hgt; simpl in Hn, Hgt; try lia.
    assert (g = k) by lia. subst g. unfold LitValid in Hv. simpl in Hv.
    destruct (nth_error gs k) as [gt|] eqn:Eg; [|apply nth_error_None in Eg; lia].
    destruct (exists_values (gins gt) k (fun f => eval_lit (mkCircuit n gs) a f)) as [bs Hbs].
    { intros x Hx. pose proof (HT k gt Eg x Hx) as Hvx.
      assert (Hnx : need x <= k).
      { destruct x as [t [ | i | h | ]]; unfold need, LitValid in *; simpl in *; lia. }
      destruct (IH x Hnx (LitValid_mono _ _ _ _ Hvx (Nat.lt_le_incl _ _ Hv))) as [b Hb].
      exists b. intros f Hf. apply Hb. lia. }
    exists (xorb s (gate_fun (gk gt) bs)). intros f Hf. unfold need in Hf. simpl in Hf.
    destruct f as [|f]; [lia|].
    simpl. rewrite Eg, (Hbs f) by lia. rewrite gate_val_map_Some. reflexivity.
Qed.

Lemma need_le_length : forall n (gs : list gate) l, LitValid n (length gs) l -> need l <= length gs.
Proof. intros n gs [s [ | i | g | ]] H; unfold need, LitValid in *; simpl in *; lia. Qed.

(** in a topologically sorted circuit every valid literal has a value, and any
    fuel [>= need l] computes it *)
Lemma topo_eval_fuel : forall n gs a l f, Topo n gs -> LitValid n (length gs) l -> need l <= f ->
  eval_lit (mkCircuit n gs) a f l = eval (mkCircuit n gs) a l.
Proof.
  intros n gs a l f HT Hv Hf.
  destruct (topo_stable n gs a HT (need l) l (Nat.le_refl _) Hv) as [b Hb].
  unfold eval, num_gates. change (gates (mkCircuit n gs)) with gs.
  rewrite (Hb f Hf), (Hb (S (length gs))); [reflexivity|].
  pose proof (need_le_length n gs l Hv). lia.
Qed.

Lemma topo_eval_defined : forall n gs a l, Topo n gs -> LitValid n (length gs) l ->
  exists b, eval (mkCircuit n gs) a l = Some b.
Proof.
  intros n gs a l HT Hv.
  destruct (topo_stable n gs a HT (need l) l (Nat.le_refl _) Hv) as [b Hb].
  exists b. unfold eval, num_gates. change (gates (mkCircuit n gs)) with gs. apply Hb. pose proof (need_le_length n gs l Hv). lia.
Qed.

Lemma topo_eval_unfold : forall n gs a j gt s, Topo n gs -> nth_error gs j = Some gt ->
  eval (mkCircuit n gs) a (L s (AGate j)) =
  opt_xor s (gate_val (gk gt) (map (eval (mkCircuit n gs) a) (gins gt))).
Proof.
  intros n gs a j gt s HT Hj. unfold eval at 1. unfold num_gates. simpl. rewrite Hj.
  f_equal. f_equal. apply map_ext_in. intros x Hx.
  assert (Hlt : j < length gs) by (apply nth_error_Some; congruence).
  pose proof (HT j gt Hj x Hx) as Hvx.
  apply topo_eval_fuel; [exact HT | eapply LitValid_mono; [exact Hvx | lia] |].
  pose proof (need_le_length n (firstn j gs) x) as Hn. rewrite firstn_length_le in Hn by lia.
  specialize (Hn Hvx). lia.
Qed.

Lemma eval_lit_prefix : forall n gs ex a, Topo n gs -> forall f l, LitValid n (length gs) l ->
  eval_lit (mkCircuit n (gs ++ ex)) a f l = eval_lit (mkCircuit n gs) a f l.
Proof.
  intros n gs ex a HT. induction f as [|f IH]; intros [s [ | i | g | ]] Hv; simpl; try reflexivity.
  unfold LitValid in Hv. simpl in Hv. rewrite nth_error_app1 by exact Hv.
  destruct (nth_error gs g) as [gt|] eqn:Eg; [|reflexivity].
  f_equal. f_equal. apply map_ext_in. intros x Hx. apply IH.
  eapply LitValid_mono; [exact (HT g gt Eg x Hx) | lia].
Qed.

Lemma Topo_app : forall n gs g, Topo n gs -> (forall l, In l (gins g) -> LitValid n (length gs) l) ->
  Topo n (gs ++ [g]).
Proof.
  intros n gs g HT Hg j gt Hj l Hl.
  destruct (nth_error_snoc _ _ _ _ Hj) as [[_ Hj']|[-> ->]]; [exact (HT j gt Hj' l Hl) | exact (Hg l Hl)].
Qed.

(** appending gates does not change the value of the literals that were valid before *)
Lemma eval_extend : forall n gs ex a l, Topo n gs -> LitValid n (length gs) l ->
  eval (mkCircuit n (gs ++ ex)) a l = eval (mkCircuit n gs) a l.
Proof.
  intros n gs ex a l HT Hv. unfold eval at 1. unfold num_gates.
  change (gates (mkCircuit n (gs ++ ex))) with (gs ++ ex).
  rewrite eval_lit_prefix by assumption.
  apply topo_eval_fuel; [exact HT | exact Hv |].
  pose proof (need_le_length n gs l Hv). rewrite app_length. lia.
Qed.

(** the value of a freshly appended gate *)
Lemma eval_new_gate : forall n gs k ins a s, Topo n gs ->
  (forall l, In l ins -> LitValid n (length gs) l) ->
  eval (mkCircuit n (gs ++ [mkGate k ins])) a (L s (AGate (length gs))) =
  opt_xor s (gate_val k (map (eval (mkCircuit n gs) a) ins)).
Proof.
  intros n gs k ins a s HT Hins.
  assert (HT' : Topo n (gs ++ [mkGate k ins])) by (apply Topo_app; assumption).
  rewrite (topo_eval_unfold n _ a (length gs) (mkGate k ins) s HT').
  - simpl. f_equal. f_equal. apply map_ext_in. intros x Hx. apply eval_extend; auto.
  - rewrite nth_error_app2 by lia. rewrite Nat.sub_diag. reflexivity.
Qed.

Lemma gate_fun_perm : forall k bs bs', Permutation bs bs' -> gate_fun k bs = gate_fun k bs'.
Proof.
  intros k bs bs' P. induction P; destruct k; simpl in *; try reflexivity; try congruence.
  - destruct x, y; reflexivity.
  - destruct x, y; reflexivity.
  - destruct x, y, (fold_right xorb false l); reflexivity.
Qed.

(* ------------------------------------------------------------------ *)
(** ** Structural hashing *)

Lemma lookup_from_Some : forall k ins gs j0 j, lookup_from k ins gs j0 = Some j ->
  exists gj, j0 <= j /\ nth_error gs (j - j0) = Some gj /\ gk gj = k /\ same_ins ins (gins gj) = true.
Proof.
  intros k ins. induction gs as [|g r IH]; intros j0 j H; simpl in H; [discriminate|].
  destruct (gkind_eqb k (gk g) && same_ins ins (gins g)) eqn:E.
  - inversion H. subst. apply andb_true_iff in E. destruct E as [E1 E2]. apply gkind_eqb_eq in E1.
    exists g. rewrite Nat.sub_diag. simpl. auto.
  - destruct (IH _ _ H) as [gj [Hle [Hn [Hk Hs]]]]. exists gj. split; [lia|].
    replace (j - j0) with (S (j - S j0)) by lia. simpl. auto.
Qed.

Lemma lookup_from_None : forall k ins gs j0, lookup_from k ins gs j0 = None ->
  forall i gj, nth_error gs i = Some gj -> gkind_eqb k (gk gj) && same_ins ins (gins gj) = false.
Proof.
  intros k ins. induction gs as [|g r IH]; intros j0 H i gj Hi; [destruct i; discriminate|].
  simpl in H. destruct (gkind_eqb k (gk g) && same_ins ins (gins g)) eqn:E; [discriminate|].
  destruct i; simpl in Hi.
  - inversion Hi. subst. exact E.
  - eapply IH; eauto.
Qed.

Lemma same_ins_perm : forall xs ys, NoDup xs -> same_ins xs ys = true -> Permutation xs ys.
Proof.
  intros xs ys Hx H. unfold same_ins in H. apply andb_true_iff in H. destruct H as [Hl Hi].
  apply Nat.eqb_eq in Hl. rewrite forallb_forall in Hi.
  apply NoDup_Permutation_bis; [exact Hx | lia |].
  intros x Hin. apply mem_In. apply Hi. exact Hin.
Qed.

Lemma perm_same_ins : forall xs ys, Permutation xs ys -> same_ins xs ys = true.
Proof.
  intros xs ys P. unfold same_ins. apply andb_true_iff. split.
  - apply Nat.eqb_eq. apply Permutation_length. exact P.
  - apply forallb_forall. intros x Hx. apply mem_In. eapply Permutation_in; eauto.
Qed.

(* ------------------------------------------------------------------ *)
(** ** Values of the literals of a topologically sorted circuit as an atom valuation *)

Definition va_of (c1 : circuit) (a : nat -> bool) (at_ : atom) : bool :=
  match eval c1 a (L false at_) with Some b => b | None => false end.

Lemma va_of_const : forall c1 a, va_of c1 a AConst = false.
Proof. reflexivity. Qed.

Lemma eval_lval : forall n gs a x, Topo n gs -> LitValid n (length gs) x ->
  eval (mkCircuit n gs) a x = Some (lval (va_of (mkCircuit n gs) a) x).
Proof.
  intros n gs a [s at_] HT Hv. unfold eval. rewrite eval_lit_polarity.
  assert (Hv0 : LitValid n (length gs) (L false at_)) by exact Hv.
  destruct (topo_eval_defined n gs a _ HT Hv0) as [b Hb]. unfold eval in Hb. rewrite Hb.
  unfold lval, va_of, eval. simpl lneg. simpl latom. rewrite Hb. reflexivity.
Qed.

Lemma eval_lxor : forall c1 a l b, eval c1 a (lxor l b) = opt_xor b (eval c1 a l).
Proof. intros. unfold eval. apply eval_lit_lxor. Qed.

Lemma gate_fun_single : forall k b, gate_fun k [b] = b.
Proof. intros [ | | ] [|]; reflexivity. Qed.

Lemma LitValid_not_undef : forall n j m, LitValid n j m -> m <> UNDEF /\ m <> DISCOVERED.
Proof.
  intros n j [s at_] H. unfold LitValid in H. simpl in H.
  split; intro E; inversion E; subst; contradiction.
Qed.

Lemma LitValid_lxor : forall n j m b, LitValid n j m -> LitValid n j (lxor m b).
Proof. intros n j [s at_] b H. exact H. Qed.

(* ------------------------------------------------------------------ *)
(** ** The last part of [finish]: collapse or emit a gate with structural hashing *)

Definition emit (index : nat) (k : gkind) (nq : bool) (ins : list lit) (st : state) : res state :=
  match ins with
  | [] => Ok (set_map st index (lxor FALSE nq))
  | [l] => Ok (set_map st index (lxor l nq))
  | _ => match lookup k ins (ngates st) with
         | Some j => Ok (set_map st index (lxor (gate_lit false j) nq))
         | None => let j := length (ngates st) in
                   Ok (mkState (set_nth (gmap st) index (lxor (gate_lit false j) nq))
                               (ngates st ++ [mkGate k ins]))
         end
  end.

Lemma emit_two : forall index k nq x y r st,
  emit index k nq (x :: y :: r) st =
  match lookup k (x :: y :: r) (ngates st) with
  | Some j => Ok (set_map st index (lxor (gate_lit false j) nq))
  | None => Ok (mkState (set_nth (gmap st) index (lxor (gate_lit false (length (ngates st))) nq))
                        (ngates st ++ [mkGate k (x :: y :: r)]))
  end.
Proof. reflexivity. Qed.

Lemma NF_app_gate : forall n gs k ins,
  NF (mkCircuit n gs) ->
  GateNF n (length gs) (mkGate k ins) ->
  lookup k ins gs = None ->
  NF (mkCircuit n (gs ++ [mkGate k ins])).
Proof.
  intros n gs k ins [Hg Hu] Hnew Hl. simpl in *. constructor; simpl.
  - intros j g Hj. destruct (nth_error_snoc _ _ _ _ Hj) as [[_ Hj']|[-> ->]]; [exact (Hg j g Hj') | exact Hnew].
  - intros i j g h Hij Hi0 Hj.
    destruct (nth_error_snoc _ _ _ _ Hj) as [[Hlt Hj']|[-> ->]];
      (destruct (nth_error_snoc _ _ _ _ Hi0) as [[_ Hi]|[-> _]]; [|lia]).
    + exact (Hu i j g h Hij Hi Hj').
    + intros [Hk HP]. simpl in Hk, HP.
      pose proof (lookup_from_None k ins gs 0 Hl i g Hi) as Hn.
      rewrite Hk in Hn. assert (gkind_eqb k k = true) by (apply gkind_eqb_eq; reflexivity).
      rewrite H in Hn. simpl in Hn.
      rewrite (perm_same_ins ins (gins g)) in Hn by (apply Permutation_sym; exact HP). discriminate.
Qed.

Definition Emits (n : nat) (gs : list gate) (gm : list lit) (index : nat) (R : res state)
           (v : (nat -> bool) -> bool) : Prop :=
  exists m gs',
    R = Ok (mkState (set_nth gm index m) gs') /\
    (exists ex, gs' = gs ++ ex) /\ NF (mkCircuit n gs') /\ LitValid n (length gs') m /\
    forall a, eval (mkCircuit n gs') a m = Some (v a).

Lemma Emits_keep : forall n gs gm index m v,
  NF (mkCircuit n gs) -> LitValid n (length gs) m ->
  (forall a, eval (mkCircuit n gs) a m = Some (v a)) ->
  Emits n gs gm index (Ok (mkState (set_nth gm index m) gs)) v.
Proof.
  intros n gs gm index m v H1 H2 H3. exists m, gs. split; [reflexivity|].
  split; [exists []; rewrite app_nil_r; reflexivity|]. auto.
Qed.

Lemma Emits_ext : forall n gs gm index R v v', (forall a, v a = v' a) ->
  Emits n gs gm index R v -> Emits n gs gm index R v'.
Proof.
  intros n gs gm index R v v' E (m & gs' & H1 & H2 & H3 & H4 & H5). exists m, gs'.
  repeat (split; [assumption|]). intros a. rewrite <- E. apply H5.
Qed.

Lemma emit_sound : forall n gs gm index k nq ins,
  NF (mkCircuit n gs) ->
  (ins = [] -> k = Xor) ->
  (forall x, In x ins -> LitValid n (length gs) x /\ latom x <> AConst) ->
  (k = Xor -> forall x, In x ins -> lneg x = false) ->
  NoDup (map latom ins) ->
  Emits n gs gm index (emit index k nq ins (mkState gm gs))
        (fun a => xorb nq (gate_fun k (map (lval (va_of (mkCircuit n gs) a)) ins))).
Proof.
  intros n gs gm index k nq ins HNF Hnil Hval Hpos Hnd.
  pose proof (NF_Topo _ HNF) as HT. simpl in HT.
  destruct ins as [|x [|y r]].
  - (* no input left: XOR *)
    apply Emits_keep; [exact HNF|exact I|].
    intros a. rewrite (Hnil eq_refl). rewrite eval_lxor. simpl. reflexivity.
  - (* one input: the gate collapses *)
    destruct (Hval x (or_introl eq_refl)) as [Hvx _].
    apply Emits_keep; [exact HNF|apply LitValid_lxor; exact Hvx|].
    intros a. cbn [ngates]. rewrite eval_lxor, (eval_lval n gs a x HT Hvx). simpl map. rewrite gate_fun_single. reflexivity.
  - rewrite emit_two. set (ins := x :: y :: r) in *.
    assert (Hndl : NoDup ins) by (eapply NoDup_map_inv; exact Hnd).
    simpl ngates. simpl gmap.
    destruct (lookup k ins gs) as [j|] eqn:El.
    + (* an equal gate exists *)
      unfold lookup in El. destruct (lookup_from_Some _ _ _ _ _ El) as [gj [_ [Hj [Hk Hs]]]].
      rewrite Nat.sub_0_r in Hj.
      assert (Hjl : j < length gs) by (apply nth_error_Some; congruence).
      apply Emits_keep; [exact HNF|exact Hjl|].
      intros a. cbn [ngates]. rewrite eval_lxor. unfold gate_lit. rewrite (topo_eval_unfold n gs a j gj false HT Hj).
      rewrite (gate_val_total (gk gj) _ (lval (va_of (mkCircuit n gs) a))).
      * cbn [opt_xor]. rewrite xorb_false_l, Hk. f_equal. f_equal. apply gate_fun_perm. apply Permutation_map.
        apply Permutation_sym. apply same_ins_perm; assumption.
      * intros z Hz. apply eval_lval; [exact HT|].
        eapply LitValid_mono; [exact (HT j gj Hj z Hz) | lia].
    + (* a new gate *)
      assert (Hnew : GateNF n (length gs) (mkGate k ins)).
      { constructor; simpl.
        - intros l Hl. apply Hval. exact Hl.
        - exact Hpos.
        - exact Hnd.
        - unfold ins. simpl. lia.
        - intros l Hl. apply Hval. exact Hl. }
      exists (lxor (gate_lit false (length gs)) nq), (gs ++ [mkGate k ins]).
      split; [reflexivity|]. split; [eexists; reflexivity|].
      split; [apply NF_app_gate; assumption|].
      split; [unfold LitValid; simpl; rewrite app_length; simpl; lia|].
      intros a. rewrite eval_lxor. unfold gate_lit.
      rewrite (eval_new_gate n gs k ins a false HT) by (intros l Hl; apply Hval; exact Hl).
      rewrite (gate_val_total k _ (lval (va_of (mkCircuit n gs) a))).
      * cbn [opt_xor]. rewrite xorb_false_l. reflexivity.
      * intros z Hz. apply eval_lval; [exact HT | apply Hval; exact Hz].
Qed.

(* ------------------------------------------------------------------ *)
(** ** [finish]: one gate *)

Lemma finish_eq : forall index gt st, finish index gt st =
  match map_inputs (gk gt) (gmap st) (gins gt) with
  | MCrash => Crash
  | MConst d => Ok (set_map st index d)
  | MIns nq [] => Ok (set_map st index (match gk gt with
                                        | And => TRUE | Or => FALSE | Xor => lxor FALSE nq end))
  | MIns nq mapped =>
    match dedup (gk gt) mapped with
    | None => Ok (set_map st index (match gk gt with And => FALSE | _ => TRUE end))
    | Some ins => emit index (gk gt) nq ins st
    end
  end.
Proof.
  intros. unfold finish. destruct (map_inputs (gk gt) (gmap st) (gins gt)) as [d|nq [|x r]|]; reflexivity.
Qed.

Lemma dedup_nonempty : forall k ms ins', k <> Xor -> ms <> [] -> dedup k ms = Some ins' -> ins' <> [].
Proof.
  intros k ms ins' Hk Hms H. rewrite (dedup_andor k ms Hk) in H. destruct (needs_dedup ms).
  - destruct (find_compl [] ms); [discriminate|]. inversion H. subst.
    destruct ms as [|x r]; [congruence|]. simpl. unfold mem. simpl. rewrite lit_eqb_refl. simpl. discriminate.
  - inversion H. subst. exact Hms.
Qed.

Lemma LitValid_atom : forall n j x y, latom x = latom y -> LitValid n j x -> LitValid n j y.
Proof. intros n j [s a] [t b] E H. simpl in E. subst. exact H. Qed.

Section Simp.
Variable c : circuit.
Notation n := (n_inputs c).

(** the old gate [g] (evaluated with fuel [d]) and the literal [m] of the new
    circuit [gs] have the same value under every assignment *)
Definition Linked (d : nat) (gs : list gate) (g : nat) (m : lit) : Prop :=
  LitValid n (length gs) m /\
  forall a, exists b, eval_lit c a d (gate_lit false g) = Some b /\
                      eval (mkCircuit n gs) a m = Some b.

Definition InputsOk (d : nat) (gs : list gate) (gm : list lit) (ins : list lit) : Prop :=
  forall l, In l ins ->
    match latom l with
    | AGate h => exists m, nth_error gm h = Some m /\ Linked d gs h m
    | AIn i => i < n
    | AUndef => False
    | AConst => True
    end.

Lemma mapped_ok : forall d gs gm ins l, InputsOk d gs gm ins -> In l ins ->
  in_range gm l /\ LitValid n (length gs) (apply_gate_map gm l) /\
  forall a, exists b, eval_lit c a d l = Some b /\
                      eval (mkCircuit n gs) a (apply_gate_map gm l) = Some b.
Proof.
  intros d gs gm ins [s at_] H Hin. specialize (H _ Hin). simpl in H.
  destruct at_ as [ | i | h | ].
  - split; [intros g E; discriminate|]. split; [exact I|]. intros a. exists s.
    split; [destruct d; reflexivity | reflexivity].
  - split; [intros g E; discriminate|]. split; [exact H|]. intros a. exists (xorb s (a i)).
    apply Nat.ltb_lt in H. split.
    + destruct d; simpl; rewrite H; reflexivity.
    + unfold apply_gate_map, eval. simpl. rewrite H. reflexivity.
  - destruct H as [m [Hm [Hv Hs]]]. split.
    + intros g E. inversion E. subst. apply nth_error_Some. congruence.
    + unfold apply_gate_map. simpl. rewrite Hm. split; [apply LitValid_lxor; exact Hv|].
      intros a. destruct (Hs a) as [b [H1 H2]]. exists (xorb s b). split.
      * rewrite eval_lit_polarity. unfold gate_lit in H1. rewrite H1. reflexivity.
      * rewrite eval_lxor, H2. reflexivity.
  - contradiction.
Qed.

Lemma finish_sound : forall d gs gm g gt,
  NF (mkCircuit n gs) ->
  nth_error (gates c) g = Some gt ->
  InputsOk d gs gm (gins gt) ->
  exists m gs',
    finish g gt (mkState gm gs) = Ok (mkState (set_nth gm g m) gs') /\
    (exists ex, gs' = gs ++ ex) /\
    NF (mkCircuit n gs') /\
    Linked (S d) gs' g m.
Proof.
  intros d gs gm g gt HNF Hgt Hok.
  pose proof (NF_Topo _ HNF) as HT. simpl in HT.
  set (k := gk gt). set (ins := gins gt).
  assert (Hr : forall l, In l ins -> in_range gm l) by (intros l Hl; apply (mapped_ok d gs gm ins l Hok Hl)).
  assert (Hv : forall l, In l ins -> LitValid n (length gs) (apply_gate_map gm l))
    by (intros l Hl; apply (mapped_ok d gs gm ins l Hok Hl)).
  (* the value of the old gate *)
  set (tv := fun a => gate_fun k (map (lval (va_of (mkCircuit n gs) a)) (map (apply_gate_map gm) ins))).
  assert (Hold : forall a, eval_lit c a (S d) (gate_lit false g) = Some (tv a)).
  { intros a. unfold gate_lit. simpl. rewrite Hgt. fold k. fold ins.
    rewrite (gate_val_total k _ (fun l => lval (va_of (mkCircuit n gs) a) (apply_gate_map gm l))).
    - cbn [opt_xor]. rewrite xorb_false_l. unfold tv. rewrite map_map. reflexivity.
    - intros x Hx. destruct (mapped_ok d gs gm ins x Hok Hx) as [_ [Hvx Hs]].
      destruct (Hs a) as [b [H1 H2]]. rewrite H1. rewrite (eval_lval n gs a _ HT Hvx) in H2. symmetry. exact H2. }
  (* it is enough to produce a literal of the new circuit with that value *)
  assert (Hfin : forall R : res state, Emits n gs gm g R tv ->
            exists m gs',
              R = Ok (mkState (set_nth gm g m) gs') /\
              (exists ex, gs' = gs ++ ex) /\ NF (mkCircuit n gs') /\ Linked (S d) gs' g m).
  { intros R (m & gs' & H1 & H2 & H3 & H4 & H5). exists m, gs'.
    split; [exact H1|]. split; [exact H2|]. split; [exact H3|]. split; [exact H4|].
    intros a. exists (tv a). split; [apply Hold | apply H5]. }
  rewrite finish_eq. fold k. fold ins. simpl gmap.
  assert (Sa : forall a, match map_inputs k gm ins with
                         | MConst d0 => k <> Xor /\ d0 = dominator k /\ tv a = absorb k
                         | MIns nq ms =>
                             xorb nq (gate_fun k (map (lval (va_of (mkCircuit n gs) a)) ms)) = tv a /\
                             (k <> Xor -> nq = false) /\
                             (forall m, In m ms -> kept k gm ins m)
                         | MCrash => False
                         end)
    by (intros a; exact (map_inputs_sem (va_of (mkCircuit n gs) a) (va_of_const _ _) k gm ins Hr)).
  assert (Hc : forall x a, latom x = AConst ->
                 eval (mkCircuit n gs) a x = Some (lval (va_of (mkCircuit n gs) a) x))
    by (intros [s []] a E; try discriminate; apply eval_lval; [exact HT | exact I]).
  assert (Hdom : k <> Xor -> forall a, tv a = absorb k -> eval (mkCircuit n gs) a (dominator k) = Some (tv a)).
  { intros Hk a E. rewrite E, Hc by (destruct k; reflexivity). f_equal. apply lval_dominator. apply va_of_const. }
  destruct (map_inputs k gm ins) as [d0|nq ms|].
  - (* a dominating input *)
    destruct (Sa (fun _ => false)) as (Hk & -> & _).
    apply Hfin, Emits_keep; [exact HNF|destruct k; exact I|].
    intros a. apply (Hdom Hk). apply (Sa a).
  - destruct (Sa (fun _ => false)) as (_ & Hnq & Hms).
    destruct ms as [|x r].
    + (* nothing left: the neutral element, for XOR the collected negation *)
      apply Hfin, Emits_keep; [exact HNF|destruct k; exact I|].
      intros a. destruct (Sa a) as (S1 & _). rewrite <- S1.
      destruct k; [rewrite Hnq by discriminate|rewrite Hnq by discriminate|rewrite eval_lxor]; reflexivity.
    + destruct (dedup k (x :: r)) as [ins'|] eqn:Ed.
      * destruct (dedup_struct k (x :: r) ins' Ed) as [Hsub Hnd];
          [intros Ek z Hz; apply (Hms z Hz); exact Ek|].
        apply Hfin. eapply Emits_ext; [|apply (emit_sound n gs gm g k nq ins' HNF)].
        -- intros a. cbv beta. destruct (Sa a) as (S1 & _). rewrite <- S1.
           pose proof (dedup_sem (va_of (mkCircuit n gs) a) k (x :: r)) as Sd. rewrite Ed in Sd.
           rewrite Sd. reflexivity.
        -- intro E. destruct (xor_or_not k) as [Hx|Hx]; [exact Hx|].
           exfalso. eapply (dedup_nonempty k (x :: r) ins'); eauto. discriminate.
        -- intros z Hz. destruct (Hms z (Hsub z Hz)) as (B & _ & l & Hl & El). split; [|exact B].
           eapply LitValid_atom; [symmetry; exact El | apply Hv; exact Hl].
        -- intros Ek z Hz. apply (Hms z (Hsub z Hz)). exact Ek.
        -- exact Hnd.
      * (* a complementary pair *)
        assert (Sd : forall a, k <> Xor /\ gate_fun k (map (lval (va_of (mkCircuit n gs) a)) (x :: r)) = absorb k)
          by (intros a; pose proof (dedup_sem (va_of (mkCircuit n gs) a) k (x :: r)) as Sd; rewrite Ed in Sd; exact Sd).
        destruct (Sd (fun _ => false)) as [Hk _].
        apply Hfin, Emits_keep; [exact HNF|destruct k; exact I|].
        intros a. apply (Hdom Hk). destruct (Sa a) as (S1 & _). rewrite <- S1, (Hnq Hk), xorb_false_l. apply Sd.
  - exact (match Sa (fun _ => false) with end).
Qed.

End Simp.

(* ------------------------------------------------------------------ *)
(** ** The invariant of the DFS *)

Section DFS.
Variable c : circuit.
Notation n := (n_inputs c).

Definition finished (m : lit) : Prop := m <> UNDEF /\ m <> DISCOVERED.

Definition child_ok (order : list nat) (l : lit) : Prop :=
  match latom l with
  | AGate h => In h order
  | AIn i => i < n
  | AUndef => False
  | AConst => True
  end.

(** [order]: the finished gates, most recently finished first *)
Record Inv (st : state) (order : list nat) : Prop := {
  inv_len : length (gmap st) = num_gates c;
  inv_nf : NF (mkCircuit n (ngates st));
  inv_nodup : NoDup order;
  inv_fin : forall g, In g order <-> exists m, nth_error (gmap st) g = Some m /\ finished m;
  inv_link : forall g m, nth_error (gmap st) g = Some m -> finished m ->
                         Linked c (length order) (ngates st) g m;
  inv_closed : forall g gt l, In g order -> nth_error (gates c) g = Some gt -> In l (gins gt) ->
                              child_ok order l;
  inv_before : forall pre g post gt l h, order = pre ++ g :: post ->
                 nth_error (gates c) g = Some gt -> In l (gins gt) -> latom l = AGate h -> In h post
}.

(** what a successful call may change *)
Record Ext (st : state) (order : list nat) (st' : state) (order' : list nat) : Prop := {
  ext_order : exists pre, order' = pre ++ order;
  ext_disc : forall g, nth_error (gmap st') g = Some DISCOVERED <-> nth_error (gmap st) g = Some DISCOVERED;
  ext_undef : forall g, nth_error (gmap st') g = Some UNDEF -> nth_error (gmap st) g = Some UNDEF
}.

Lemma Ext_refl : forall st order, Ext st order st order.
Proof. intros. constructor; [exists []; reflexivity | tauto | auto]. Qed.

Lemma Ext_trans : forall s1 o1 s2 o2 s3 o3, Ext s1 o1 s2 o2 -> Ext s2 o2 s3 o3 -> Ext s1 o1 s3 o3.
Proof.
  intros s1 o1 s2 o2 s3 o3 [[p1 E1] D1 U1] [[p2 E2] D2 U2]. constructor.
  - exists (p2 ++ p1). subst. rewrite app_assoc. reflexivity.
  - intro g. rewrite D2. apply D1.
  - intros g H. apply U1. apply U2. exact H.
Qed.

Lemma Ext_In : forall st order st' order' g, Ext st order st' order' -> In g order -> In g order'.
Proof. intros st order st' order' g [[p E] _ _] H. subst. apply in_or_app. right. exact H. Qed.

Lemma Linked_weaken : forall d gs g m d' ex, NF (mkCircuit n gs) ->
  Linked c d gs g m -> d <= d' -> Linked c d' (gs ++ ex) g m.
Proof.
  intros d gs g m d' ex HNF [Hv Hs] Hle. pose proof (NF_Topo _ HNF) as HT. simpl in HT. split.
  - eapply LitValid_mono; [exact Hv | rewrite app_length; lia].
  - intros a. destruct (Hs a) as [b [H1 H2]]. exists b. split.
    + eapply eval_lit_mono; eauto.
    + rewrite eval_extend; assumption.
Qed.

Lemma finished_dec : forall m, {m = UNDEF} + {m = DISCOVERED} + {finished m}.
Proof.
  intros m. destruct (lit_eq_dec m UNDEF) as [E|E]; [left; left; exact E|].
  destruct (lit_eq_dec m DISCOVERED) as [E'|E']; [left; right; exact E' | right; split; assumption].
Qed.

Lemma Inv_set_discovered : forall st order idx, Inv st order ->
  nth_error (gmap st) idx = Some UNDEF -> Inv (set_map st idx DISCOVERED) order.
Proof.
  intros st order idx I Hidx.
  assert (Hlt : idx < length (gmap st)) by (apply nth_error_Some; congruence).
  assert (Hnth : forall g, g <> idx -> nth_error (gmap (set_map st idx DISCOVERED)) g = nth_error (gmap st) g).
  { intros g Hg. simpl. apply nth_error_set_nth_neq. congruence. }
  assert (Hidx' : nth_error (gmap (set_map st idx DISCOVERED)) idx = Some DISCOVERED).
  { simpl. apply nth_error_set_nth_eq. exact Hlt. }
  destruct I as [I1 I2 I3 I4 I5 I6 I7]. constructor; simpl ngates; auto.
  - simpl. rewrite length_set_nth. exact I1.
  - intro g. rewrite I4. destruct (Nat.eq_dec g idx) as [E|E].
    + subst g. rewrite Hidx, Hidx'. split; intros [m [Hm [F1 F2]]]; inversion Hm; subst; congruence.
    + rewrite (Hnth g E). tauto.
  - intros g m Hm Hf. destruct (Nat.eq_dec g idx) as [E|E].
    + subst g. rewrite Hidx' in Hm. inversion Hm. subst. destruct Hf. congruence.
    + rewrite (Hnth g E) in Hm. apply I5; assumption.
Qed.

Lemma Inv_InputsOk : forall gm gs order ins, Inv (mkState gm gs) order ->
  (forall l, In l ins -> child_ok order l) -> InputsOk c (length order) gs gm ins.
Proof.
  intros gm gs order ins I C l Hl. specialize (C l Hl). unfold child_ok in C. destruct (latom l); auto.
  apply (inv_fin _ _ I) in C. destruct C as [m [Hm F]]. exists m. split; [exact Hm|].
  apply (inv_link _ _ I); assumption.
Qed.

Lemma child_ok_cons : forall order g l, child_ok order l -> child_ok (g :: order) l.
Proof. intros order g l H. unfold child_ok in *. destruct (latom l); auto. right. exact H. Qed.

Lemma Inv_finish : forall gm1 gs1 o1 idx gt m' ex,
  Inv (mkState gm1 gs1) o1 -> ~ In idx o1 -> idx < length gm1 ->
  nth_error (gates c) idx = Some gt -> (forall l, In l (gins gt) -> child_ok o1 l) ->
  NF (mkCircuit n (gs1 ++ ex)) -> Linked c (S (length o1)) (gs1 ++ ex) idx m' ->
  Inv (mkState (set_nth gm1 idx m') (gs1 ++ ex)) (idx :: o1).
Proof.
  intros gm1 gs1 o1 idx gt m' ex I1 Hnot Hlt1 Eg C1 HNF' HL'.
  assert (Hf' : finished m') by (destruct HL' as [Hv _]; eapply LitValid_not_undef; exact Hv).
  constructor; simpl.
  - rewrite length_set_nth. exact (inv_len _ _ I1).
  - exact HNF'.
  - constructor; [exact Hnot | exact (inv_nodup _ _ I1)].
  - intro g. destruct (Nat.eq_dec g idx) as [E|E].
    + subst g. rewrite nth_error_set_nth_eq by exact Hlt1. split; [|auto].
      intros _. exists m'. split; [reflexivity | exact Hf'].
    + rewrite nth_error_set_nth_neq by congruence. rewrite <- (inv_fin _ _ I1 g). simpl.
      split; [intros [H|H]; [congruence | exact H] | auto].
  - intros g m Hm Hf. destruct (Nat.eq_dec g idx) as [E|E].
    + subst g. rewrite nth_error_set_nth_eq in Hm by exact Hlt1. inversion Hm. subst m. exact HL'.
    + rewrite nth_error_set_nth_neq in Hm by congruence.
      apply (Linked_weaken (length o1)); [exact (inv_nf _ _ I1) | apply (inv_link _ _ I1); assumption | lia].
  - intros g gt0 l [Hg|Hg] Hgt0 Hl; apply child_ok_cons.
    + subst g. rewrite Eg in Hgt0. inversion Hgt0. subst gt0. exact (C1 l Hl).
    + exact (inv_closed _ _ I1 g gt0 l Hg Hgt0 Hl).
  - intros pre g post gt0 l h Ho Hgt0 Hl Hh. destruct pre as [|p pre]; simpl in Ho.
    + inversion Ho. subst g post. rewrite Eg in Hgt0. inversion Hgt0. subst gt0.
      specialize (C1 l Hl). unfold child_ok in C1. rewrite Hh in C1. exact C1.
    + inversion Ho. subst p. eapply (inv_before _ _ I1); eauto.
Qed.

Lemma Ext_finish : forall st order gm1 gs1 o1 idx m' gs',
  Ext (set_map st idx DISCOVERED) order (mkState gm1 gs1) o1 ->
  nth_error (gmap st) idx = Some UNDEF -> idx < length gm1 -> finished m' ->
  Ext st order (mkState (set_nth gm1 idx m') gs') (idx :: o1).
Proof.
  intros st order gm1 gs1 o1 idx m' gs' E1 Em Hlt1 [F1 F2]. constructor.
  - destruct (ext_order _ _ _ _ E1) as [p Hp]. exists (idx :: p). subst o1. reflexivity.
  - intro g. simpl. destruct (Nat.eq_dec g idx) as [E|E].
    + subst g. rewrite nth_error_set_nth_eq by exact Hlt1. rewrite Em.
      split; intro Hx; inversion Hx; congruence.
    + rewrite nth_error_set_nth_neq by congruence. rewrite (ext_disc _ _ _ _ E1 g). simpl.
      rewrite nth_error_set_nth_neq by congruence. tauto.
  - intros g. simpl. destruct (Nat.eq_dec g idx) as [E|E].
    + subst g. rewrite nth_error_set_nth_eq by exact Hlt1. intro Hx. inversion Hx. congruence.
    + rewrite nth_error_set_nth_neq by congruence. intro Hx.
      apply (ext_undef _ _ _ _ E1) in Hx. simpl in Hx.
      rewrite nth_error_set_nth_neq in Hx by congruence. exact Hx.
Qed.

Definition RecSpec (rec : nat -> state -> res state) : Prop :=
  forall idx st order st', Inv st order -> rec idx st = Ok st' ->
    exists order', Inv st' order' /\ Ext st order st' order' /\ In idx order'.

Lemma visit_inputs_spec : forall rec, RecSpec rec ->
  forall ls st order st', Inv st order -> visit_inputs c rec ls st = Ok st' ->
    exists order', Inv st' order' /\ Ext st order st' order' /\
                   forall l, In l ls -> child_ok order' l.
Proof.
  intros rec HR. induction ls as [|l r IH]; intros st order st' I H; simpl in H.
  - inversion H. subst. exists order. split; [exact I|]. split; [apply Ext_refl | intros l []].
  - destruct l as [s at_]. simpl in H. destruct at_ as [ | i | h | ].
    + destruct (IH _ _ _ I H) as [o' [I' [E' C']]]. exists o'. split; [exact I'|]. split; [exact E'|].
      intros l [Hl|Hl]; [subst; unfold child_ok; simpl; trivial | auto].
    + destruct (Nat.leb n i) eqn:Ei; [discriminate|]. apply Nat.leb_gt in Ei.
      destruct (IH _ _ _ I H) as [o' [I' [E' C']]]. exists o'. split; [exact I'|]. split; [exact E'|].
      intros l [Hl|Hl]; [subst; exact Ei | auto].
    + destruct (rec h st) as [st1| | |] eqn:Er; try discriminate.
      destruct (HR _ _ _ _ I Er) as [o1 [I1 [E1 H1]]].
      destruct (IH _ _ _ I1 H) as [o' [I' [E' C']]]. exists o'. split; [exact I'|].
      split; [eapply Ext_trans; eauto|].
      intros l [Hl|Hl]; [subst; unfold child_ok; simpl; eapply Ext_In; eauto | auto].
    + discriminate.
Qed.

Lemma inner_spec : forall f, RecSpec (inner c f).
Proof.
  induction f as [|f IH]; intros idx st order st' I H; simpl in H; [discriminate|].
  destruct (nth_error (gmap st) idx) as [m|] eqn:Em; [|discriminate].
  destruct (lit_eqb m DISCOVERED) eqn:Ed; [discriminate|]. apply lit_eqb_neq in Ed.
  destruct (lit_eqb m UNDEF) eqn:Eu; simpl in H.
  2:{ (* finished *)
    apply lit_eqb_neq in Eu. inversion H. subst st'. exists order. split; [exact I|].
    split; [apply Ext_refl|]. apply (inv_fin _ _ I). exists m. split; [exact Em | split; assumption]. }
  apply lit_eqb_eq in Eu. subst m.
  destruct (nth_error (gates c) idx) as [gt|] eqn:Eg; [|discriminate].
  assert (Hlt : idx < length (gmap st)) by (apply nth_error_Some; congruence).
  pose proof (Inv_set_discovered st order idx I Em) as I0.
  destruct (visit_inputs c (inner c f) (gins gt) (set_map st idx DISCOVERED)) as [st1| | |] eqn:Ev;
    try discriminate.
  destruct (visit_inputs_spec _ IH _ _ _ _ I0 Ev) as [o1 [I1 [E1 C1]]].
  (* the current gate is still DISCOVERED, hence not in [o1] *)
  assert (Hd1 : nth_error (gmap st1) idx = Some DISCOVERED).
  { apply (ext_disc _ _ _ _ E1). simpl. apply nth_error_set_nth_eq. exact Hlt. }
  assert (Hnot : ~ In idx o1).
  { intro Hin. apply (inv_fin _ _ I1) in Hin. destruct Hin as [m [Hm [_ F]]]. congruence. }
  destruct st1 as [gm1 gs1]. simpl in *.
  pose proof (Inv_InputsOk _ _ _ _ I1 C1) as Hok.
  destruct (finish_sound c (length o1) gs1 gm1 idx gt (inv_nf _ _ I1) Eg Hok)
    as [m' [gs' [Hfin [[ex Hex] [HNF' HL']]]]].
  rewrite Hfin in H. inversion H. subst st' gs'. clear H.
  assert (Hlt1 : idx < length gm1).
  { pose proof (inv_len _ _ I1) as L1. pose proof (inv_len _ _ I) as L0. simpl in L1. lia. }
  exists (idx :: o1). split; [|split].
  - exact (Inv_finish gm1 gs1 o1 idx gt m' ex I1 Hnot Hlt1 Eg C1 HNF' HL').
  - apply (Ext_finish st order gm1 gs1 o1 idx m' _ E1 Em Hlt1).
    destruct HL' as [Hv _]. eapply LitValid_not_undef. exact Hv.
  - left. reflexivity.
Qed.

Lemma simplify_roots_spec : forall f roots st order st', Inv st order ->
  simplify_roots c f roots st = Ok st' ->
  exists order', Inv st' order' /\ Ext st order st' order' /\
                 forall r g, In r roots -> latom r = AGate g -> In g order'.
Proof.
  intros f. induction roots as [|r rs IH]; intros st order st' I H; simpl in H.
  - inversion H. subst. exists order. split; [exact I|]. split; [apply Ext_refl|]. intros r g [].
  - unfold get_gate_no in H. destruct (latom r) as [ | i | g0 | ] eqn:Er.
    1,2,4: destruct (IH _ _ _ I H) as [o' [I' [E' R']]]; exists o'; split; [exact I'|]; split; [exact E'|];
           intros r' g [Hr|Hr] Hg; [subst; congruence | eauto].
    destruct (inner c f g0 st) as [st1| | |] eqn:Ei; try discriminate.
    destruct (inner_spec f _ _ _ _ I Ei) as [o1 [I1 [E1 H1]]].
    destruct (IH _ _ _ I1 H) as [o' [I' [E' R']]]. exists o'. split; [exact I'|].
    split; [eapply Ext_trans; eauto|].
    intros r' g [Hr|Hr] Hg.
    + subst r'. rewrite Er in Hg. inversion Hg. subst. eapply Ext_In; eauto.
    + eauto.
Qed.

Lemma Inv_init : Inv (mkState (repeat UNDEF (num_gates c)) []) [].
Proof.
  constructor; simpl.
  - apply repeat_length.
  - constructor; simpl.
    + intros j g H. destruct j; discriminate.
    + intros i j g h _ H. destruct i; discriminate.
  - constructor.
  - intro g. split; [intros []|]. intros [m [Hm [F _]]].
    apply nth_error_In in Hm. apply repeat_spec in Hm. contradiction.
  - intros g m Hm [F _]. apply nth_error_In in Hm. apply repeat_spec in Hm. contradiction.
  - intros g gt l [].
  - intros pre g post gt l h H. destruct pre; discriminate.
Qed.

End DFS.

(* ------------------------------------------------------------------ *)
(** ** Reachability *)

(** [h] is an input gate of gate [g] *)
Definition child (c : circuit) (g h : nat) : Prop :=
  exists gt l, nth_error (gates c) g = Some gt /\ In l (gins gt) /\ latom l = AGate h.

Inductive Reach (c : circuit) (roots : list lit) : nat -> Prop :=
| Reach_root : forall r g, In r roots -> latom r = AGate g -> Reach c roots g
| Reach_step : forall g h, Reach c roots g -> child c g h -> Reach c roots h.

(** one or more steps *)
Inductive Path (c : circuit) (g : nat) : nat -> Prop :=
| Path_one : forall h, child c g h -> Path c g h
| Path_step : forall h h', Path c g h -> child c h h' -> Path c g h'.

Lemma gate_atoms_In : forall ls g, In g (gate_atoms ls) <-> exists l, In l ls /\ latom l = AGate g.
Proof.
  intros ls g. unfold gate_atoms. rewrite in_flat_map. split.
  - intros [l [Hl Hg]]. exists l. split; [exact Hl|]. destruct (latom l); simpl in Hg; try contradiction.
    destruct Hg as [E|[]]. congruence.
  - intros [l [Hl E]]. exists l. split; [exact Hl|]. rewrite E. left. reflexivity.
Qed.

Lemma succs_child : forall c g h, In h (succs c g) <-> child c g h.
Proof.
  intros c g h. unfold succs, child. destruct (nth_error (gates c) g) as [gt|].
  - rewrite gate_atoms_In. split.
    + intros [l [Hl E]]. exists gt, l. auto.
    + intros [gt' [l [Hg [Hl E]]]]. inversion Hg. subst. exists l. auto.
  - split; [intros [] | intros [gt [l [Hg _]]]; discriminate].
Qed.

Lemma add_new_In : forall xs acc x, In x (add_new xs acc) <-> In x xs \/ In x acc.
Proof.
  induction xs as [|y r IH]; intros acc x; simpl.
  - tauto.
  - destruct (memn y acc) eqn:E.
    + apply memn_In in E. rewrite IH. split; [tauto|]. intros [[H|H]|H]; subst; auto.
    + rewrite IH, in_app_iff. simpl. tauto.
Qed.

(** everything [close] returns satisfies a property that holds of the start
    set and is closed under [child] *)
Lemma close_sound : forall c (P : nat -> Prop),
  (forall g h, P g -> child c g h -> P h) ->
  forall fuel acc, (forall x, In x acc -> P x) -> forall x, In x (close c fuel acc) -> P x.
Proof.
  intros c P Hstep. induction fuel as [|f IH]; intros acc Hacc x Hx; simpl in Hx.
  - auto.
  - apply (IH _) in Hx; [exact Hx|]. intros y Hy. apply add_new_In in Hy. destruct Hy as [Hy|Hy]; [|auto].
    apply in_flat_map in Hy. destruct Hy as [g [Hg Hy]]. apply succs_child in Hy. eauto.
Qed.

Lemma reach_sound : forall c roots g, In g (reach c roots) -> Reach c roots g.
Proof.
  intros c roots g H. unfold reach in H.
  apply (close_sound c (Reach c roots)) in H; [exact H | |].
  - intros x y Hx Hc. eapply Reach_step; eauto.
  - intros x Hx. apply add_new_In in Hx. destruct Hx as [Hx|[]].
    apply gate_atoms_In in Hx. destruct Hx as [l [Hl E]]. eapply Reach_root; eauto.
Qed.

Lemma on_cycle_sound : forall c g, on_cycle_b c g = true -> Path c g g.
Proof.
  intros c g H. unfold on_cycle_b in H. apply memn_In in H.
  apply (close_sound c (Path c g)) in H; [exact H | |].
  - intros x y Hx Hc. eapply Path_step; eauto.
  - intros x Hx. apply add_new_In in Hx. destruct Hx as [Hx|[]].
    apply succs_child in Hx. apply Path_one. exact Hx.
Qed.

(* ------------------------------------------------------------------ *)
(** ** Soundness of the model simplifier: every [Ok] answer satisfies the C18 predicate *)

Section Sound.
Variable c : circuit.
Variable roots : list lit.
Variable c' : circuit.
Variable gm : list lit.
Hypothesis Hsimp : simplify c roots = Ok (c', gm).

Lemma simp_core : exists order,
  Inv c (mkState gm (gates c')) order /\ n_inputs c' = n_inputs c /\
  (forall r g, In r roots -> latom r = AGate g -> In g order) /\
  forall g, nth_error gm g <> Some DISCOVERED.
Proof.
  unfold simplify in Hsimp.
  destruct (simplify_roots c (S (num_gates c)) roots (mkState (repeat UNDEF (num_gates c)) [])) as [st| | |] eqn:E;
    try discriminate.
  inversion Hsimp. subst c' gm. clear Hsimp.
  destruct (simplify_roots_spec c _ _ _ _ _ (Inv_init c) E) as [order [I [X R]]].
  exists order. destruct st as [gm0 gs0]. simpl. split; [exact I|]. split; [reflexivity|]. split; [exact R|].
  intros g Hg. apply (ext_disc _ _ _ _ X) in Hg. simpl in Hg.
  apply nth_error_In in Hg. apply repeat_spec in Hg. discriminate.
Qed.

(** [simp_nf]: the result is in normal form (conditions 1-5, in scope, topologically sorted) *)
Theorem simp_nf : NF c'.
Proof.
  destruct simp_core as [order [I [Hn _]]]. pose proof (inv_nf _ _ _ I) as H. simpl in H.
  destruct c' as [n' gs']. simpl in *. subst n'. exact H.
Qed.

Lemma simp_n_inputs : n_inputs c' = n_inputs c.
Proof. destruct simp_core as [order [_ [Hn _]]]. exact Hn. Qed.

Lemma order_lt : forall order, Inv c (mkState gm (gates c')) order -> forall g, In g order -> g < num_gates c.
Proof.
  intros order I g Hg. apply (inv_fin _ _ _ I) in Hg. destruct Hg as [m [Hm _]]. simpl in Hm.
  rewrite <- (inv_len _ _ _ I). simpl. apply nth_error_Some. congruence.
Qed.

Lemma order_length : forall order, Inv c (mkState gm (gates c')) order -> length order <= num_gates c.
Proof.
  intros order I.
  assert (H : incl order (seq 0 (num_gates c))).
  { intros g Hg. apply in_seq. pose proof (order_lt order I g Hg). lia. }
  pose proof (NoDup_incl_length (inv_nodup _ _ _ I) H) as L. rewrite seq_length in L. exact L.
Qed.

(** every finished gate has the same value as its image, under every assignment *)
Lemma finished_equiv : forall order, Inv c (mkState gm (gates c')) order ->
  forall g, In g order -> exists m, nth_error gm g = Some m /\
    LitValid (n_inputs c') (num_gates c') m /\
    forall a, exists b, eval c a (gate_lit false g) = Some b /\ eval c' a m = Some b.
Proof.
  intros order I g Hg. pose proof Hg as Hg'. apply (inv_fin _ _ _ I) in Hg'.
  destruct Hg' as [m [Hm Hf]]. simpl in Hm. exists m. split; [exact Hm|].
  destruct (inv_link _ _ _ I g m Hm Hf) as [Hv Hs]. simpl in Hv, Hs.
  pose proof simp_n_inputs as Hn. split; [rewrite Hn; exact Hv|].
  intros a. destruct (Hs a) as [b [H1 H2]]. exists b. split.
  - unfold eval. eapply eval_lit_mono; [exact H1|]. pose proof (order_length order I). lia.
  - destruct c' as [n' gs']. simpl in *. subst n'. exact H2.
Qed.

Lemma reach_in_order : forall order, Inv c (mkState gm (gates c')) order ->
  (forall r g, In r roots -> latom r = AGate g -> In g order) ->
  forall g, Reach c roots g -> In g order.
Proof.
  intros order I R g H. induction H as [r g Hr Hg | g h _ IH [gt [l [Hgt [Hl Hh]]]]].
  - eauto.
  - pose proof (inv_closed _ _ _ I g gt l IH Hgt Hl) as Hc. unfold child_ok in Hc. rewrite Hh in Hc. exact Hc.
Qed.

Lemma eval_nongate : forall c1 c2 a l, n_inputs c1 = n_inputs c2 ->
  (forall g, latom l <> AGate g) -> eval c1 a l = eval c2 a l.
Proof.
  intros c1 c2 a [s [ | i | g | ]] Hn H; unfold eval; simpl; try reflexivity.
  - rewrite Hn. reflexivity.
  - exfalso. apply (H g). reflexivity.
Qed.

(** [simp_equiv]: every literal over the reachable gates (in particular every
    root) denotes the same function of the inputs before and after, through the
    gate map; gate literals have a value (the fragment is acyclic and in scope) *)
Theorem simp_equiv : forall l,
  (forall g, latom l = AGate g -> Reach c roots g) ->
  forall a, eval c a l = eval c' a (apply_gate_map gm l) /\
            (forall g, latom l = AGate g -> eval c a l <> None).
Proof.
  intros l Hl a. destruct simp_core as [order [I [Hn [R _]]]].
  destruct l as [s [ | i | g | ]].
  3:{ pose proof (reach_in_order order I R g (Hl g eq_refl)) as Hg.
      destruct (finished_equiv order I g Hg) as [m [Hm [_ Hs]]]. destruct (Hs a) as [b [H1 H2]].
      unfold apply_gate_map. simpl. rewrite Hm. unfold eval in *. rewrite eval_lit_lxor, H2.
      rewrite eval_lit_polarity. unfold gate_lit in H1. rewrite H1. simpl.
      split; [reflexivity | intros g' _; discriminate]. }
  all: split; [apply eval_nongate; [symmetry; exact Hn | intros g E; discriminate] | intros g E; discriminate].
Qed.

(** the gate map is consistent with the new circuit *)
Theorem simp_map_consistent : MapConsistent c c' gm roots.
Proof.
  destruct simp_core as [order [I [Hn [R D]]]]. constructor.
  - exact (inv_len _ _ _ I).
  - intros m Hm. apply In_nth_error in Hm. destruct Hm as [g Hg].
    destruct (finished_dec m) as [[E|E]|F].
    + left. exact E.
    + exfalso. subst m. exact (D g Hg).
    + right. assert (Hin : In g order) by (apply (inv_fin _ _ _ I); exists m; auto).
      destruct (finished_equiv order I g Hin) as [m' [Hm' [Hv _]]]. simpl in Hg. congruence.
  - intros g Hg. apply reach_sound in Hg. pose proof (reach_in_order order I R g Hg) as Hin.
    destruct (finished_equiv order I g Hin) as [m [Hm [Hv _]]]. eauto.
Qed.

(** no gate reachable from the roots lies on a cycle or mentions an unknown input *)
Lemma path_after : forall order, Inv c (mkState gm (gates c')) order ->
  forall g h, Path c g h -> forall pre post, order = pre ++ g :: post -> In h post.
Proof.
  intros order I g h P. induction P as [h [gt [l [Hgt [Hl Hh]]]] | h h' _ IH [gt [l [Hgt [Hl Hh]]]]];
    intros pre post Ho.
  - eapply (inv_before _ _ _ I); eauto.
  - specialize (IH pre post Ho). apply in_split in IH. destruct IH as [p1 [p2 Hp]].
    assert (Ho' : order = (pre ++ g :: p1) ++ h :: p2).
    { rewrite Ho, Hp. rewrite <- app_assoc. reflexivity. }
    pose proof (inv_before _ _ _ I _ _ _ gt l h' Ho' Hgt Hl Hh) as Hin.
    rewrite Hp. apply in_or_app. right. right. exact Hin.
Qed.

Theorem simp_no_err_condition : should_err_b c roots = false.
Proof.
  destruct simp_core as [order [I [Hn [R _]]]].
  unfold should_err_b. destruct (existsb _ (reach c roots)) eqn:E; [|reflexivity]. exfalso.
  apply existsb_exists in E. destruct E as [g [Hg Hb]].
  apply reach_sound in Hg. pose proof (reach_in_order order I R g Hg) as Hin.
  apply orb_true_iff in Hb. destruct Hb as [Hb|Hb].
  - apply on_cycle_sound in Hb. destruct (in_split _ _ Hin) as [pre [post Ho]].
    pose proof (path_after order I g g Hb pre post Ho) as Hpost.
    pose proof (inv_nodup _ _ _ I) as Hnd. rewrite Ho in Hnd. apply NoDup_remove_2 in Hnd.
    apply Hnd. apply in_or_app. right. exact Hpost.
  - destruct (nth_error (gates c) g) as [gt|] eqn:Egt; [|discriminate].
    apply existsb_exists in Hb. destruct Hb as [l [Hl Hu]].
    pose proof (inv_closed _ _ _ I g gt l Hin Egt Hl) as Hc.
    unfold child_ok in Hc. unfold unknown_input_b in Hu. destruct (latom l); try discriminate.
    + apply Nat.leb_le in Hu. lia.
    + exact Hc.
Qed.

(** The model's [Ok] answers satisfy exactly the executable predicate that the
    driver applies to the answers of the implementation. *)
Theorem simp_ok_answer : ok_answer_b c roots c' gm = true.
Proof.
  unfold ok_answer_b. rewrite simp_no_err_condition. simpl.
  pose proof simp_n_inputs as Hn. rewrite Hn, Nat.eqb_refl. simpl.
  rewrite (proj2 (nf_b_spec c') simp_nf). simpl.
  rewrite (proj2 (map_consistent_b_spec c c' gm roots) simp_map_consistent). simpl.
  assert (Hobs : forall l, In l (observed c roots) -> forall g, latom l = AGate g -> Reach c roots g).
  { intros l Hl g E. unfold observed in Hl. apply in_app_or in Hl. destruct Hl as [Hl|Hl].
    - eapply Reach_root; eauto.
    - apply in_map_iff in Hl. destruct Hl as [g' [E' Hg']]. subst l. simpl in E. inversion E. subst.
      apply reach_sound. exact Hg'. }
  rewrite (proj2 (equiv_b_spec (n_inputs c) c c' gm (observed c roots) eq_refl Hn)).
  - simpl. apply (defined_b_spec (n_inputs c) c _ eq_refl).
    intros a l g Hl E. exact (proj2 (simp_equiv l (Hobs l Hl) a) g E).
  - intros a l Hl. exact (proj1 (simp_equiv l (Hobs l Hl) a)).
Qed.

End Sound.

(* ------------------------------------------------------------------ *)
(** ** Errors and totality *)

(** every gate literal of the circuit and of the roots refers to an existing
    gate (the documented domain of [simplify]; otherwise the code panics) *)
Definition Closed (c : circuit) (roots : list lit) : Prop :=
  (forall r g, In r roots -> latom r = AGate g -> g < num_gates c) /\
  (forall g h, child c g h -> h < num_gates c).

Lemma closed_b_spec : forall c roots, closed_b c roots = true <-> Closed c roots.
Proof.
  intros c roots. unfold closed_b, Closed. rewrite forallb_forall. split.
  - intros H. split.
    + intros r g Hr Hg. apply Nat.ltb_lt. apply H. apply in_or_app. left.
      apply gate_atoms_In. eauto.
    + intros g h [gt [l [Hgt [Hl Hh]]]]. apply Nat.ltb_lt. apply H. apply in_or_app. right.
      apply in_flat_map. exists gt. split; [eapply nth_error_In; eauto|]. apply gate_atoms_In. eauto.
  - intros [H1 H2] x Hx. apply Nat.ltb_lt. apply in_app_or in Hx. destruct Hx as [Hx|Hx].
    + apply gate_atoms_In in Hx. destruct Hx as [l [Hl E]]. eauto.
    + apply in_flat_map in Hx. destruct Hx as [gt [Hgt Hx]]. apply gate_atoms_In in Hx.
      destruct Hx as [l [Hl E]]. apply In_nth_error in Hgt. destruct Hgt as [g Hg].
      apply (H2 g x). exists gt, l. auto.
Qed.

(** [Err(l)] is justified: [l] is a reachable gate that lies on a cycle, or an
    unknown input (incl. UNDEF) mentioned by a reachable gate *)
Definition ErrOk (c : circuit) (roots : list lit) (l : lit) : Prop :=
  (exists g, l = gate_lit false g /\ Reach c roots g /\ Path c g g) \/
  (unknown_input_b (n_inputs c) l = true /\
   exists g gt, Reach c roots g /\ nth_error (gates c) g = Some gt /\ In l (gins gt)).

Section Total.
Variable c : circuit.
Variable roots : list lit.
Hypothesis Hclosed : Closed c roots.

Lemma Reach_lt : forall g, Reach c roots g -> g < num_gates c.
Proof.
  destruct Hclosed as [H1 H2]. intros g H. induction H as [r g Hr Hg | g h _ _ Hc]; eauto.
Qed.

Definition is_undef_at (gmp : list lit) (g : nat) : bool :=
  match nth_error gmp g with Some m => lit_eqb m UNDEF | None => false end.

Definition undefs (st : state) : list nat :=
  filter (is_undef_at (gmap st)) (seq 0 (length (gmap st))).

Lemma undefs_In : forall st g, In g (undefs st) <-> nth_error (gmap st) g = Some UNDEF.
Proof.
  intros st g. unfold undefs, is_undef_at. rewrite filter_In, in_seq. split.
  - intros [_ H]. destruct (nth_error (gmap st) g) as [m|]; [|discriminate].
    apply lit_eqb_eq in H. congruence.
  - intros H. split.
    + assert (g < length (gmap st)) by (apply nth_error_Some; congruence). lia.
    + rewrite H. apply lit_eqb_refl.
Qed.

Lemma undefs_NoDup : forall st, NoDup (undefs st).
Proof. intros. unfold undefs. apply NoDup_filter. apply seq_NoDup. Qed.

Lemma undefs_ext : forall st o st' o', Ext st o st' o' -> length (undefs st') <= length (undefs st).
Proof.
  intros st o st' o' E. apply NoDup_incl_length; [apply undefs_NoDup|].
  intros g Hg. apply undefs_In. apply (ext_undef _ _ _ _ E). apply undefs_In. exact Hg.
Qed.

Lemma undefs_set_discovered : forall st idx, nth_error (gmap st) idx = Some UNDEF ->
  S (length (undefs (set_map st idx DISCOVERED))) <= length (undefs st).
Proof.
  intros st idx H.
  assert (Hlt : idx < length (gmap st)) by (apply nth_error_Some; congruence).
  change (S (length (undefs (set_map st idx DISCOVERED)))) with (length (idx :: undefs (set_map st idx DISCOVERED))).
  apply NoDup_incl_length.
  - constructor; [|apply undefs_NoDup]. intro Hin. apply undefs_In in Hin. simpl in Hin.
    rewrite nth_error_set_nth_eq in Hin by exact Hlt. discriminate.
  - intros g [Hg|Hg]; apply undefs_In.
    + subst. exact H.
    + apply undefs_In in Hg. simpl in Hg. destruct (Nat.eq_dec g idx) as [E|E].
      * subst. rewrite nth_error_set_nth_eq in Hg by exact Hlt. discriminate.
      * rewrite nth_error_set_nth_neq in Hg by congruence. exact Hg.
Qed.

Definition Good (r : res state) : Prop :=
  match r with Ok _ => True | Err l => ErrOk c roots l | Crash => False | Fuel => False end.

Definition InnerGood (f : nat) : Prop :=
  forall idx st order, Inv c st order -> Reach c roots idx ->
    (forall d, nth_error (gmap st) d = Some DISCOVERED -> Path c d idx) ->
    length (undefs st) < f -> Good (inner c f idx st).

Lemma visit_good : forall f, InnerGood f ->
  forall p gt, nth_error (gates c) p = Some gt -> Reach c roots p ->
  forall ls st order, Inv c st order -> incl ls (gins gt) ->
    (forall d, nth_error (gmap st) d = Some DISCOVERED -> d = p \/ Path c d p) ->
    length (undefs st) < f -> Good (visit_inputs c (inner c f) ls st).
Proof.
  intros f HG p gt Hgt Hp. induction ls as [|l r IH]; intros st order I Hsub Hd Hu; simpl.
  - exact Logic.I.
  - assert (Hl : In l (gins gt)) by (apply Hsub; left; reflexivity).
    assert (Hsub' : incl r (gins gt)) by (intros x Hx; apply Hsub; right; exact Hx).
    destruct l as [s at_]. simpl. destruct at_ as [ | i | h | ].
    + eapply IH; eauto.
    + destruct (Nat.leb (n_inputs c) i) eqn:Ei.
      * right. split; [exact Ei|]. exists p, gt. auto.
      * eapply IH; eauto.
    + assert (Hc : child c p h) by (exists gt, (L s (AGate h)); auto).
      assert (Hgood : Good (inner c f h st)).
      { eapply HG; eauto.
        - eapply Reach_step; eauto.
        - intros d Hdd. destruct (Hd d Hdd) as [E|P]; [subst; apply Path_one; exact Hc | eapply Path_step; eauto]. }
      destruct (inner c f h st) as [st1|e| |] eqn:Ei; try exact Hgood.
      destruct (inner_spec c f _ _ _ _ I Ei) as [o1 [I1 [E1 _]]].
      eapply IH; eauto.
      * intros d Hdd. apply Hd. apply (ext_disc _ _ _ _ E1). exact Hdd.
      * pose proof (undefs_ext _ _ _ _ E1). lia.
    + right. split; [reflexivity|]. exists p, gt. auto.
Qed.

Lemma inner_good : forall f, InnerGood f.
Proof.
  induction f as [|f IH]; intros idx st order I Hr Hd Hu; [lia|]. simpl.
  assert (Hlt : idx < length (gmap st)) by (rewrite (inv_len _ _ _ I); apply Reach_lt; exact Hr).
  destruct (nth_error (gmap st) idx) as [m|] eqn:Em; [|apply nth_error_None in Em; lia].
  destruct (lit_eqb m DISCOVERED) eqn:Ed.
  { apply lit_eqb_eq in Ed. subst m. left. exists idx. split; [reflexivity|]. split; [exact Hr | apply Hd; exact Em]. }
  destruct (lit_eqb m UNDEF) eqn:Eu; simpl; [|exact Logic.I].
  apply lit_eqb_eq in Eu. subst m.
  destruct (nth_error (gates c) idx) as [gt|] eqn:Eg.
  2:{ apply nth_error_None in Eg. pose proof (Reach_lt idx Hr). unfold num_gates in *. lia. }
  pose proof (Inv_set_discovered c st order idx I Em) as I0.
  assert (Hgood : Good (visit_inputs c (inner c f) (gins gt) (set_map st idx DISCOVERED))).
  { eapply (visit_good f IH idx gt Eg Hr (gins gt) _ order I0 (incl_refl _)).
    - intros d Hdd. simpl in Hdd. destruct (Nat.eq_dec d idx) as [E|E]; [left; exact E|].
      rewrite nth_error_set_nth_neq in Hdd by congruence. right. apply Hd. exact Hdd.
    - pose proof (undefs_set_discovered st idx Em). lia. }
  destruct (visit_inputs c (inner c f) (gins gt) (set_map st idx DISCOVERED)) as [st1|e| |] eqn:Ev;
    try exact Hgood.
  destruct (visit_inputs_spec c _ (inner_spec c f) _ _ _ _ I0 Ev) as [o1 [I1 [E1 C1]]].
  destruct st1 as [gm1 gs1].
  pose proof (Inv_InputsOk c _ _ _ _ I1 C1) as Hok.
  destruct (finish_sound c (length o1) gs1 gm1 idx gt (inv_nf _ _ _ I1) Eg Hok) as [m' [gs' [Hfin _]]].
  rewrite Hfin. exact Logic.I.
Qed.

Lemma roots_good : forall rs st order, Inv c st order -> incl rs roots ->
  (forall d, nth_error (gmap st) d <> Some DISCOVERED) ->
  Good (simplify_roots c (S (num_gates c)) rs st).
Proof.
  induction rs as [|r rs IH]; intros st order I Hsub Hnd; cbn [simplify_roots]; [exact Logic.I|].
  assert (Hsub' : incl rs roots) by (intros x Hx; apply Hsub; right; exact Hx).
  unfold get_gate_no. destruct (latom r) as [ | i | g | ] eqn:Er; try (eapply IH; eauto).
  assert (Hgood : Good (inner c (S (num_gates c)) g st)).
  { eapply inner_good; eauto.
    - eapply Reach_root; [apply Hsub; left; reflexivity | exact Er].
    - intros d Hdd. exfalso. exact (Hnd d Hdd).
    - assert (length (undefs st) <= length (gmap st)).
      { rewrite <- (seq_length (length (gmap st)) 0). apply NoDup_incl_length; [apply undefs_NoDup|].
        intros x Hx. unfold undefs in Hx. apply filter_In in Hx. tauto. }
      rewrite (inv_len _ _ _ I) in H. lia. }
  destruct (inner c (S (num_gates c)) g st) as [st1|e| |] eqn:Ei; try exact Hgood.
  destruct (inner_spec c _ _ _ _ _ I Ei) as [o1 [I1 [E1 _]]].
  eapply IH; eauto. intros d Hdd. apply (Hnd d). apply (ext_disc _ _ _ _ E1). exact Hdd.
Qed.

(** Every answer of the model on a closed circuit is the right one: an [Ok]
    answer passes the audit [ok_answer_b], an [Err] answer is justified, and the
    model neither indexes out of bounds nor runs out of fuel. *)
Theorem simp_answer :
  match simplify c roots with
  | Ok (c', gm) => ok_answer_b c roots c' gm = true
  | Err l => ErrOk c roots l
  | Crash => False
  | Fuel => False
  end.
Proof.
  pose proof (simp_ok_answer c roots) as Hok.
  assert (Hg : Good (simplify_roots c (S (num_gates c)) roots (mkState (repeat UNDEF (num_gates c)) []))).
  { apply (roots_good roots _ _ (Inv_init c) (incl_refl _)).
    intros d Hd. simpl in Hd. apply nth_error_In in Hd. apply repeat_spec in Hd. discriminate. }
  unfold simplify in *.
  destruct (simplify_roots c (S (num_gates c)) roots _) as [st|e| |]; try exact Hg.
  apply Hok. reflexivity.
Qed.

End Total.

(* ------------------------------------------------------------------ *)
(** ** The executable closure [close] is complete: [reach] and [on_cycle_b]
       decide reachability *)

Section Closure.
Variable c : circuit.
Hypothesis Hchild : forall g h, child c g h -> h < num_gates c.

Definition closedset (S : list nat) : Prop := forall g h, In g S -> child c g h -> In h S.

Lemma add_new_NoDup : forall xs acc, NoDup acc -> NoDup (add_new xs acc).
Proof.
  induction xs as [|x r IH]; intros acc H; simpl; [exact H|].
  destruct (memn x acc) eqn:E; [apply IH; exact H|].
  apply IH. apply NoDup_snoc; [exact H|]. intro Hin. apply memn_In in Hin. congruence.
Qed.

Lemma add_new_length : forall xs acc, length acc <= length (add_new xs acc).
Proof.
  induction xs as [|x r IH]; intros acc; simpl; [lia|].
  destruct (memn x acc); [apply IH|].
  eapply Nat.le_trans; [|apply IH]. rewrite app_length. simpl. lia.
Qed.

Lemma add_new_same : forall xs acc, (forall x, In x xs -> In x acc) -> add_new xs acc = acc.
Proof.
  induction xs as [|x r IH]; intros acc H; simpl; [reflexivity|].
  assert (E : memn x acc = true) by (apply memn_In; apply H; left; reflexivity).
  rewrite E. apply IH. intros y Hy. apply H. right. exact Hy.
Qed.

Lemma add_new_grow : forall xs acc x, In x xs -> ~ In x acc -> length acc < length (add_new xs acc).
Proof.
  induction xs as [|y r IH]; intros acc x Hx Hn; [destruct Hx|]. simpl.
  destruct (memn y acc) eqn:E.
  - destruct Hx as [Hx|Hx]; [subst; apply memn_In in E; contradiction|]. eapply IH; eauto.
  - eapply Nat.lt_le_trans; [|apply add_new_length]. rewrite app_length. simpl. lia.
Qed.

Lemma close_incl : forall fuel acc x, In x acc -> In x (close c fuel acc).
Proof.
  induction fuel as [|f IH]; intros acc x H; simpl; [exact H|].
  apply IH. apply add_new_In. right. exact H.
Qed.

Lemma close_fix : forall fuel acc, closedset acc -> close c fuel acc = acc.
Proof.
  induction fuel as [|f IH]; intros acc H; simpl; [reflexivity|].
  rewrite add_new_same; [apply IH; exact H|].
  intros x Hx. apply in_flat_map in Hx. destruct Hx as [g [Hg Hx]]. apply succs_child in Hx. eauto.
Qed.

Lemma full_closed : forall acc, NoDup acc -> (forall x, In x acc -> x < num_gates c) ->
  num_gates c <= length acc -> closedset acc.
Proof.
  intros acc Hd Hb Hl g h Hg Hc.
  assert (Hi : incl (seq 0 (num_gates c)) acc).
  { apply NoDup_length_incl; [exact Hd | rewrite seq_length; exact Hl |].
    intros x Hx. apply in_seq. specialize (Hb x Hx). lia. }
  apply Hi. apply in_seq. specialize (Hchild g h Hc). lia.
Qed.

Lemma close_closed : forall fuel acc, NoDup acc -> (forall x, In x acc -> x < num_gates c) ->
  num_gates c - length acc <= fuel -> closedset (close c fuel acc).
Proof.
  induction fuel as [|f IH]; intros acc Hd Hb Hl; simpl.
  - apply full_closed; auto. lia.
  - set (new := flat_map (succs c) acc).
    assert (Hbn : forall x, In x new -> x < num_gates c).
    { intros x Hx. apply in_flat_map in Hx. destruct Hx as [g [_ Hx]]. apply succs_child in Hx. eauto. }
    destruct (forallb (fun x => memn x acc) new) eqn:E.
    + (* nothing new: [acc] is closed *)
      rewrite forallb_forall in E.
      assert (Hc : closedset acc).
      { intros g h Hg Hch. apply memn_In. apply E. apply in_flat_map. exists g. split; [exact Hg|].
        apply succs_child. exact Hch. }
      rewrite add_new_same by (intros x Hx; apply memn_In; apply E; exact Hx).
      rewrite close_fix by exact Hc. exact Hc.
    + assert (Hex : exists x, In x new /\ ~ In x acc).
      { destruct (forallb_forall (fun x => memn x acc) new) as [_ F].
        destruct (existsb (fun x => negb (memn x acc)) new) eqn:Ex.
        - apply existsb_exists in Ex. destruct Ex as [x [Hx Hm]]. exists x. split; [exact Hx|].
          intro Hin. apply memn_In in Hin. rewrite Hin in Hm. discriminate.
        - exfalso. rewrite F in E; [discriminate|]. intros x Hx.
          destruct (memn x acc) eqn:Em; [reflexivity|].
          assert (existsb (fun x => negb (memn x acc)) new = true).
          { apply existsb_exists. exists x. rewrite Em. auto. }
          congruence. }
      destruct Hex as [x [Hx Hn]]. apply IH.
      * apply add_new_NoDup. exact Hd.
      * intros y Hy. apply add_new_In in Hy. destruct Hy; auto.
      * pose proof (add_new_grow new acc x Hx Hn). lia.
Qed.

End Closure.

Section Complete.
Variable c : circuit.
Variable roots : list lit.
Hypothesis Hclosed : Closed c roots.

Lemma close_start : forall xs, (forall x, In x xs -> x < num_gates c) ->
  closedset c (close c (num_gates c) (add_new xs [])) /\
  forall x, In x xs -> In x (close c (num_gates c) (add_new xs [])).
Proof.
  destruct Hclosed as [_ H2]. intros xs Hxs. split.
  - apply (close_closed c H2); [apply add_new_NoDup; constructor | | lia].
    intros x Hx. apply add_new_In in Hx. destruct Hx as [Hx|[]]. auto.
  - intros x Hx. apply close_incl. apply add_new_In. left. exact Hx.
Qed.

Lemma reach_complete : forall g, Reach c roots g -> In g (reach c roots).
Proof.
  destruct (close_start (gate_atoms roots)) as [Hc Hi].
  { intros x Hx. apply gate_atoms_In in Hx. destruct Hx as [l [Hl E]]. exact (proj1 Hclosed l x Hl E). }
  intros g H. induction H as [r g Hr Hg | g h _ IH Hch].
  - apply Hi. apply gate_atoms_In. eauto.
  - eapply Hc; eauto.
Qed.

Lemma on_cycle_complete : forall g h, g < num_gates c -> Path c g h ->
  In h (close c (num_gates c) (add_new (succs c g) [])).
Proof.
  intros g h Hg. destruct (close_start (succs c g)) as [Hc Hi].
  { intros x Hx. apply succs_child in Hx. exact (proj2 Hclosed g x Hx). }
  intros P. induction P as [h Hch | h h' _ IH Hch].
  - apply Hi. apply succs_child. exact Hch.
  - eapply Hc; eauto.
Qed.

(** the Prop behind [should_err_b] *)
Definition ShouldErr : Prop :=
  exists g, Reach c roots g /\
    (Path c g g \/ exists gt l, nth_error (gates c) g = Some gt /\ In l (gins gt) /\
                                unknown_input_b (n_inputs c) l = true).

Theorem should_err_b_spec : should_err_b c roots = true <-> ShouldErr.
Proof.
  unfold should_err_b, ShouldErr. rewrite existsb_exists. split.
  - intros [g [Hg Hb]]. exists g. split; [apply reach_sound; exact Hg|].
    apply orb_true_iff in Hb. destruct Hb as [Hb|Hb].
    + left. apply on_cycle_sound. exact Hb.
    + right. destruct (nth_error (gates c) g) as [gt|]; [|discriminate].
      apply existsb_exists in Hb. destruct Hb as [l [Hl Hu]]. exists gt, l. auto.
  - intros [g [Hg Hb]]. exists g. split; [apply reach_complete; exact Hg|].
    apply orb_true_iff. destruct Hb as [Hb|[gt [l [Hgt [Hl Hu]]]]].
    + left. unfold on_cycle_b. apply memn_In. apply on_cycle_complete; [|exact Hb].
      apply (Reach_lt c roots Hclosed). exact Hg.
    + right. rewrite Hgt. apply existsb_exists. exists l. auto.
Qed.

Lemma err_answer_complete : forall l, ErrOk c roots l -> err_answer_b c roots l = true.
Proof.
  intros l H. unfold err_answer_b. apply andb_true_iff. split.
  - apply should_err_b_spec. destruct H as [[g [El [Hr Hp]]]|[Hu [g [gt [Hr [Hgt Hl]]]]]].
    + exists g. auto.
    + exists g. split; [exact Hr|]. right. exists gt, l. auto.
  - unfold err_ok_b. destruct H as [[g [El [Hr Hp]]]|[Hu [g [gt [Hr [Hgt Hl]]]]]].
    + subst l. simpl. apply andb_true_iff. split.
      * apply memn_In. apply reach_complete. exact Hr.
      * unfold on_cycle_b. apply memn_In. apply on_cycle_complete; [|exact Hp].
        apply (Reach_lt c roots Hclosed). exact Hr.
    + assert (Hex : existsb (fun g0 => match nth_error (gates c) g0 with
                                       | Some gt0 => existsb (fun x => atom_eqb (latom l) (latom x)) (gins gt0)
                                       | None => false end) (reach c roots) = true).
      { apply existsb_exists. exists g. split; [apply reach_complete; exact Hr|]. rewrite Hgt.
        apply existsb_exists. exists l. split; [exact Hl | apply atom_eqb_refl]. }
      unfold unknown_input_b in Hu. destruct (latom l) eqn:Ea; try discriminate.
      * rewrite Hex. unfold unknown_input_b. rewrite Ea, Hu. reflexivity.
      * rewrite Hex. unfold unknown_input_b. rewrite Ea. reflexivity.
Qed.

(** Every answer of the model on a closed circuit passes the audit that the
    driver applies to the implementation; no index error, no fuel exhaustion. *)
Theorem simp_total :
  match simplify c roots with
  | Ok (c', gm) => ok_answer_b c roots c' gm = true
  | Err l => err_answer_b c roots l = true
  | Crash => False
  | Fuel => False
  end.
Proof.
  pose proof (simp_answer c roots Hclosed) as H.
  destruct (simplify c roots) as [[c' gm]|l| |]; auto. apply err_answer_complete. exact H.
Qed.

(** [simp_err_iff]: the model answers [Err] exactly when the fragment reachable
    from the roots has a cycle or mentions an unknown input *)
Theorem simp_err_iff : (exists l, simplify c roots = Err l) <-> ShouldErr.
Proof.
  pose proof simp_total as H. split.
  - intros [l E]. rewrite E in H. apply should_err_b_spec.
    unfold err_answer_b in H. apply andb_true_iff in H. tauto.
  - intro S. apply should_err_b_spec in S.
    destruct (simplify c roots) as [[c' gm]|l| |]; try contradiction; [|eauto].
    unfold ok_answer_b in H. rewrite S in H. simpl in H. discriminate.
Qed.

End Complete.

(* ------------------------------------------------------------------ *)
(** ** The hypotheses are satisfiable: concrete runs *)

Definition ex_unit_test : circuit :=   (* the circuit of the crate's test [tests::simplify] *)
  mkCircuit 3 [mkGate Xor [input_lit true 0; input_lit false 1; input_lit false 2];
               mkGate And [gate_lit false 0]].

Example ex_unit_test_closed : closed_b ex_unit_test [gate_lit false 1] = true.
Proof. reflexivity. Qed.

Example ex_unit_test_result :
  simplify ex_unit_test [gate_lit false 1] =
  Ok (mkCircuit 3 [mkGate Xor [input_lit false 0; input_lit false 1; input_lit false 2]],
      [gate_lit true 0; gate_lit true 0]).
Proof. reflexivity. Qed.

(** structural hashing, complement elimination and a collapse in one run *)
Definition ex_shared : circuit :=
  mkCircuit 2 [mkGate And [input_lit true 0; input_lit false 1];
               mkGate And [input_lit false 1; input_lit true 0; TRUE];
               mkGate Or [gate_lit false 0; gate_lit true 1; input_lit false 0];
               mkGate Xor [gate_lit false 2; gate_lit false 0; input_lit false 1; input_lit false 1]].

Example ex_shared_result :
  simplify ex_shared [gate_lit true 3] =
  Ok (mkCircuit 2 [mkGate And [input_lit true 0; input_lit false 1]],
      [gate_lit false 0; gate_lit false 0; TRUE; gate_lit true 0]).
Proof. reflexivity. Qed.

Definition ex_cycle : circuit :=
  mkCircuit 1 [mkGate And [input_lit false 0; gate_lit true 1]; mkGate Or [gate_lit false 0]].

Example ex_cycle_closed : closed_b ex_cycle [gate_lit false 1] = true.
Proof. reflexivity. Qed.
Example ex_cycle_result : simplify ex_cycle [gate_lit false 1] = Err (gate_lit false 1).
Proof. reflexivity. Qed.
Example ex_cycle_should_err : should_err_b ex_cycle [gate_lit false 1] = true.
Proof. reflexivity. Qed.

Example ex_unknown_result :
  simplify (mkCircuit 1 [mkGate And [FALSE; input_lit true 1]]) [gate_lit false 0] = Err (input_lit true 1).
Proof. reflexivity. Qed.

Theorem simp_err_justified : forall c roots l, Closed c roots -> simplify c roots = Err l ->
  ErrOk c roots l.
Proof.
  intros c roots l Hc E. pose proof (simp_answer c roots Hc) as H. rewrite E in H. exact H.
Qed.
