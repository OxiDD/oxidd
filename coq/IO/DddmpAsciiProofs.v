(** * C15 proofs, ASCII node lines: the importer model reads back the exporter model's lines *)
From Coq Require Import String Ascii.
From Coq Require Import List NArith ZArith Bool Arith Lia.
From OxiVerif Require Import Base.ListFacts IO.Dddmp IO.DddmpProofs.
Import ListNotations.
Open Scope N_scope.

(** ** decimal printing and parsing *)

Definition digits (s : list byte) : Prop := Forall (fun b => is_digit b = true) s.

Lemma is_digit_range b : is_digit b = true <-> 48 <= b /\ b <= 57.
Proof.
  unfold is_digit. rewrite andb_true_iff, !N.leb_le. reflexivity.
Qed.

Lemma digit_not_sp b : is_digit b = true -> is_sp b = false /\ b <> 10 /\ b <> 13 /\ b <> 45.
Proof.
  intros H. apply is_digit_range in H. unfold is_sp.
  destruct (N.eqb_spec b 32); [lia|]. destruct (N.eqb_spec b 9); [lia|]. repeat split; lia.
Qed.

Lemma dec_digits n : digits (dec n).
Proof. unfold digits, dec. apply dec_go_digits. constructor. Qed.

Lemma dec_nonempty n : dec n <> [].
Proof. apply dec_clean. Qed.

Lemma digits_val_ge : forall s a v, digits_val s a = Some v -> a <= v.
Proof.
  induction s as [|c s IH]; intros a v H; cbn in H.
  - inversion H; lia.
  - destruct (is_digit c) eqn:E; [|discriminate]. apply IH in H.
    apply is_digit_range in E. lia.
Qed.

Lemma digits_val_digits : forall s a v, digits_val s a = Some v -> digits s.
Proof.
  induction s as [|c s IH]; intros a v H; cbn in H; [constructor|].
  destruct (is_digit c) eqn:E; [|discriminate]. constructor; [exact E|]. eapply IH; exact H.
Qed.

Lemma dec_go_val : forall fuel n acc,
  n < 10 ^ N.of_nat fuel -> fuel <> O ->
  digits_val (dec_go fuel n acc) 0 = digits_val acc n.
Proof.
  induction fuel as [|f IH]; intros n acc Hn Hf; [contradiction|].
  cbn [dec_go]. pose proof (is_digit_mod10 n) as Hd.
  destruct (N.ltb_spec n 10).
  - cbn [digits_val]. rewrite Hd. f_equal. rewrite N.mod_small by assumption. lia.
  - assert (f <> O).
    { intros ->. cbn in Hn. lia. }
    rewrite IH; [| |assumption].
    + cbn [digits_val]. rewrite Hd. f_equal.
      rewrite (N.add_comm 48), N.add_sub, (N.mul_comm (n / 10)). symmetry. apply N.div_mod'.
    + rewrite Nat2N.inj_succ, N.pow_succ_r' in Hn. apply N.div_lt_upper_bound; [discriminate|exact Hn].
Qed.

Theorem digits_val_dec : forall n, digits_val (dec n) 0 = Some n.
Proof.
  intros n. unfold dec. rewrite dec_go_val; [reflexivity| |discriminate].
  rewrite Nat2N.inj_succ, N2Nat.id, N.pow_succ_r'.
  destruct (N.eq_dec n 0) as [->|Hne]; [reflexivity|].
  assert (n < 2 ^ N.size n) by apply N.size_gt.
  assert (2 ^ N.size n <= 10 ^ N.size n) by (apply N.pow_le_mono_l; lia). lia.
Qed.

(** what follows a number in a node line: nothing, or a space/tab *)
Definition sep_tail (tl : list byte) : Prop := tl = [] \/ exists c r, tl = c :: r /\ is_sp c = true.

Lemma parse_unsigned_digits : forall limit s acc v tl,
  digits_val s acc = Some v -> v < limit -> sep_tail tl ->
  forall num, (s <> [] \/ num = true) ->
  parse_unsigned_go limit (s ++ tl) acc num = Ok (tl, v).
Proof.
  induction s as [|c s IH]; intros acc v tl Hv Hlim Htl num Hnum.
  - cbn in Hv. inversion Hv; subst. destruct Hnum as [H | ->]; [contradiction|].
    destruct Htl as [-> | (c & r & -> & Hc)]; cbn [app parse_unsigned_go]; [reflexivity|].
    assert (is_digit c = false).
    { destruct (is_digit c) eqn:E; [|reflexivity]. apply digit_not_sp in E. destruct E. congruence. }
    rewrite H, Hc. reflexivity.
  - cbn in Hv. destruct (is_digit c) eqn:E; [|discriminate].
    cbn [app parse_unsigned_go]. rewrite E.
    pose proof (digits_val_ge _ _ _ Hv).
    destruct (N.leb_spec limit (acc * 10 + (c - 48))); [lia|].
    apply IH; try assumption. right. reflexivity.
Qed.

Theorem parse_usize_dec : forall n tl, n < usize_limit -> sep_tail tl ->
  parse_usize (dec n ++ tl) = Ok (tl, n).
Proof.
  intros n tl Hn Htl. unfold parse_usize.
  apply parse_unsigned_digits; try assumption.
  - apply digits_val_dec.
  - left. apply dec_nonempty.
Qed.

Theorem parse_u32_dec : forall n, n < 4294967296 -> parse_u32 (dec n) = Ok ([], n).
Proof.
  intros n Hn. unfold parse_u32. rewrite <- (app_nil_r (dec n)).
  apply parse_unsigned_digits; try assumption.
  - apply digits_val_dec.
  - left. reflexivity.
  - left. apply dec_nonempty.
Qed.

Lemma trim_start_digit s : (exists c r, s = c :: r /\ is_sp c = false) -> trim_start s = s.
Proof. intros (c & r & -> & H). cbn. rewrite H. reflexivity. Qed.

Lemma dec_head n : exists c r, dec n = c :: r /\ is_digit c = true.
Proof.
  pose proof (dec_digits n) as H. pose proof (dec_nonempty n) as Hne.
  destruct (dec n) as [|c r]; [contradiction|]. inversion H; subst. eauto.
Qed.

Lemma split_sp_token : forall tok rest,
  Forall (fun b => is_sp b = false) tok ->
  split_sp (tok ++ 32 :: rest) = Some (tok, rest).
Proof.
  induction tok as [|c tok IH]; intros rest H; cbn [app split_sp].
  - reflexivity.
  - inversion H; subst. rewrite H2, IH by assumption. reflexivity.
Qed.

Lemma digits_no_sp s : digits s -> Forall (fun b => is_sp b = false) s.
Proof. intros H. eapply Forall_impl; [|exact H]. cbn. intros b Hb. apply digit_not_sp. exact Hb. Qed.

(** ** edge lists *)

Definition sgn (negative : bool) (v : N) : Z := if negative then Z.opp (Z.of_N v) else Z.of_N v.

Lemma pel_digits : forall ds i v negative num acc tl,
  digits_val ds i = Some v -> v <= isize_max ->
  parse_edge_list_go (ds ++ tl) i negative num acc =
  parse_edge_list_go tl v negative (match ds with [] => num | _ => true end) acc.
Proof.
  induction ds as [|c ds IH]; intros i v negative num acc tl Hv Hlim.
  - cbn in Hv. inversion Hv; subst. reflexivity.
  - cbn in Hv. destruct (is_digit c) eqn:E; [|discriminate].
    cbn [app parse_edge_list_go]. rewrite E.
    pose proof (digits_val_ge _ _ _ Hv).
    destruct (N.ltb_spec isize_max (i * 10 + (c - 48))); [lia|].
    rewrite (IH _ _ _ _ _ tl Hv Hlim). destruct ds; reflexivity.
Qed.

Lemma sgn_abs z : sgn (z <? 0)%Z (Z.abs_N z) = z.
Proof. unfold sgn. destruct (Z.ltb_spec z 0); lia. Qed.

Lemma pel_dec_z z acc tl : Z.abs_N z <= isize_max ->
  parse_edge_list_go (dec_z z ++ tl) 0 false false acc =
  parse_edge_list_go tl (Z.abs_N z) (z <? 0)%Z true acc.
Proof.
  intros Hz. pose proof (dec_nonempty (Z.abs_N z)) as Hne. unfold dec_z. destruct (z <? 0)%Z.
  - cbn [app parse_edge_list_go]. change (is_digit 45) with false. change (45 =? 45) with true. cbv iota.
    rewrite (pel_digits _ 0 (Z.abs_N z)) by (apply digits_val_dec || exact Hz).
    destruct (dec (Z.abs_N z)); [contradiction|reflexivity].
  - rewrite (pel_digits _ 0 (Z.abs_N z)) by (apply digits_val_dec || exact Hz).
    destruct (dec (Z.abs_N z)); [contradiction|reflexivity].
Qed.

Lemma pel_dec_z_sp : forall z acc tl, Z.abs_N z <= isize_max ->
  parse_edge_list_go (dec_z z ++ 32 :: tl) 0 false false acc =
  parse_edge_list_go tl 0 false false (acc ++ [z]).
Proof. intros z acc tl Hz. rewrite pel_dec_z by exact Hz. rewrite <- (sgn_abs z) at 3. reflexivity. Qed.

Lemma pel_dec_z_end : forall z acc, Z.abs_N z <= isize_max ->
  parse_edge_list_go (dec_z z) 0 false false acc = Ok (acc ++ [z]).
Proof.
  intros z acc Hz. rewrite <- (app_nil_r (dec_z z)), pel_dec_z by exact Hz.
  rewrite <- (sgn_abs z) at 3. reflexivity.
Qed.

Theorem parse_edge_list_two : forall t e,
  Z.abs_N t <= isize_max -> Z.abs_N e <= isize_max ->
  parse_edge_list (dec_z t ++ [32] ++ dec_z e) = Ok [t; e].
Proof.
  intros t e Ht He. unfold parse_edge_list. cbn [app].
  rewrite pel_dec_z_sp by assumption. rewrite pel_dec_z_end by assumption. reflexivity.
Qed.

Lemma parse_edge_list_zeros : parse_edge_list [48; 32; 48] = Ok [0; 0]%Z.
Proof. reflexivity. Qed.

(** ** lines *)

Definition no_nl (s : list byte) : Prop := Forall (fun b => b <> 10) s.

Lemma take_line_nl : forall line rest, no_nl line ->
  take_line (line ++ 10 :: rest) = (line ++ [10], rest).
Proof.
  induction line as [|c line IH]; intros rest H; cbn [app take_line].
  - reflexivity.
  - inversion H; subst. destruct (N.eqb_spec c 10); [contradiction|].
    rewrite IH by assumption. reflexivity.
Qed.

Theorem read_line_nl : forall body lastc rest,
  no_nl (body ++ [lastc]) -> lastc <> 13 ->
  read_line ((body ++ [lastc]) ++ 10 :: rest) = Ok (body ++ [lastc], rest).
Proof.
  intros body lastc rest Hnl H13. unfold read_line.
  destruct ((body ++ [lastc]) ++ 10 :: rest) eqn:E.
  - destruct body; discriminate.
  - rewrite <- E. rewrite take_line_nl by assumption.
    rewrite rev_app_distr. cbn [rev app strip_eol_rev]. change (10 =? 10) with true. cbn [orb].
    rewrite rev_app_distr. cbn [rev app strip_eol_rev].
    assert (lastc <> 10) by (apply Forall_app in Hnl; destruct Hnl as [_ Hl]; inversion Hl; assumption).
    destruct (N.eqb_spec lastc 10); [contradiction|]. destruct (N.eqb_spec lastc 13); [contradiction|].
    cbn [orb]. change (lastc :: rev body) with ([lastc] ++ rev body).
    rewrite rev_app_distr, rev_involutive. reflexivity.
Qed.

Lemma digits_no_nl s : digits s -> no_nl s.
Proof. intros H. eapply Forall_impl; [|exact H]. cbn. intros b Hb. apply digit_not_sp in Hb. tauto. Qed.

Lemma dec_z_no_nl z : no_nl (dec_z z).
Proof.
  unfold dec_z. destruct (z <? 0)%Z; [constructor; [discriminate|]|]; apply digits_no_nl, dec_digits.
Qed.

(** the text ends in a byte that [read_line] does not strip *)
Definition line_end (s : list byte) : Prop := exists body lastc, s = body ++ [lastc] /\ lastc <> 13.

Lemma line_end_app pre s : line_end s -> line_end (pre ++ s).
Proof. intros (body & lastc & -> & H). exists (pre ++ body), lastc. rewrite app_assoc. auto. Qed.

Lemma line_end_digits s : digits s -> s <> [] -> line_end s.
Proof.
  intros Hd Hne. destruct (exists_last Hne) as (body & lastc & ->). exists body, lastc. split; [reflexivity|].
  apply Forall_app in Hd. destruct Hd as [_ Hl]. inversion Hl as [|? ? H _]; subst.
  apply digit_not_sp in H. tauto.
Qed.

Lemma line_end_dec_z z : line_end (dec_z z).
Proof.
  unfold dec_z. destruct (z <? 0)%Z; [apply (line_end_app [45])|];
    (apply line_end_digits; [apply dec_digits|apply dec_nonempty]).
Qed.

Lemma no_nl_app a b : no_nl a -> no_nl b -> no_nl (a ++ b).
Proof. intros. apply Forall_app. split; assumption. Qed.

Lemma no_nl_one c : c <> 10 -> no_nl [c].
Proof. intros. constructor; [assumption|constructor]. Qed.

Lemma no_nl_dec n : no_nl (dec n).
Proof. apply digits_no_nl, dec_digits. Qed.

Lemma no_nl_cons c r : c <> 10 -> no_nl r -> no_nl (c :: r).
Proof. intros. constructor; assumption. Qed.

Lemma no_nl_nil : no_nl [].
Proof. constructor. Qed.

Ltac solve_no_nl :=
  repeat first [ apply no_nl_nil | apply no_nl_dec | apply dec_z_no_nl | assumption
               | apply no_nl_app | apply no_nl_cons; [discriminate|] ].

(** the text of an inner node line without its line break *)
Definition inner_text (id v : N) (t e : Z) : list byte :=
  dec id ++ [32] ++ dec v ++ [32] ++ dec_z t ++ [32] ++ dec_z e.
Definition term_text (id : N) (desc : list byte) : list byte :=
  dec id ++ [32] ++ desc ++ [32; 48; 32; 48].

Lemma export_ascii_line_inner id v t e :
  export_ascii_line id (AInner v t e) = inner_text id v t e ++ [10].
Proof. unfold export_ascii_line, inner_text. rewrite <- !app_assoc. reflexivity. Qed.

Lemma export_ascii_line_term id desc :
  export_ascii_line id (ATerm desc) = term_text id desc ++ [10].
Proof. unfold export_ascii_line, term_text. rewrite <- !app_assoc. reflexivity. Qed.

Lemma read_line_text text tail : line_end text -> no_nl text ->
  read_line ((text ++ [10]) ++ tail) = Ok (text, tail).
Proof.
  intros (body & lastc & -> & H13) Hnl. rewrite <- app_assoc. apply read_line_nl; assumption.
Qed.

Lemma read_line_term id desc tail : no_nl desc ->
  read_line ((term_text id desc ++ [10]) ++ tail) = Ok (term_text id desc, tail).
Proof.
  intros H. unfold term_text. apply read_line_text; [|solve_no_nl].
  do 3 apply line_end_app. exists [32; 48; 32], 48. split; [reflexivity|discriminate].
Qed.

Lemma read_line_inner id v t e tail :
  read_line ((inner_text id v t e ++ [10]) ++ tail) = Ok (inner_text id v t e, tail).
Proof. unfold inner_text. apply read_line_text; [do 6 apply line_end_app; apply line_end_dec_z|solve_no_nl]. Qed.

(** ** one line *)

Definition token (tok : list byte) : Prop := tok <> [] /\ Forall (fun b => is_sp b = false) tok.

Lemma token_dec n : token (dec n).
Proof. split; [apply dec_nonempty|apply digits_no_sp, dec_digits]. Qed.

Lemma trim_start_token tok x : token tok -> trim_start (tok ++ x) = tok ++ x.
Proof.
  intros [Hne Hf]. destruct tok as [|c r]; [contradiction|]. inversion Hf; subst.
  cbn [app trim_start]. rewrite H1. reflexivity.
Qed.

Lemma trim_start_sp_token tok x : token tok -> trim_start (32 :: tok ++ x) = tok ++ x.
Proof. intros H. cbn [trim_start]. change (is_sp 32) with true. cbv iota. apply trim_start_token. exact H. Qed.

(** the common beginning of both kinds of lines: node ID, then a token *)
Lemma line_head : forall id tok tail, id < usize_limit -> token tok ->
  parse_usize (dec id ++ [32] ++ tok ++ 32 :: tail) = Ok (32 :: tok ++ 32 :: tail, id).
Proof.
  intros id tok tail Hid Htok. apply parse_usize_dec; [assumption|].
  right. exists 32, (tok ++ 32 :: tail). split; reflexivity.
Qed.

Theorem import_ascii_line_term : forall k slm st id desc e,
  id < usize_limit -> token desc -> parse_terminal k desc = Some e ->
  import_ascii_line k true slm st id (term_text id desc) = Ok (mkS (st_store st) (st_nodes st ++ [e])).
Proof.
  intros k slm st id desc e Hid Htok Hp. unfold import_ascii_line, term_text.
  change (desc ++ [32; 48; 32; 48]) with (desc ++ 32 :: [48; 32; 48]).
  rewrite line_head by assumption. cbn [bind]. rewrite N.eqb_refl. cbn [negb].
  rewrite trim_start_sp_token by assumption. cbn [bind].
  rewrite trim_start_token by assumption.
  rewrite split_sp_token by apply Htok.
  rewrite parse_edge_list_zeros. cbn [bind]. cbn [Z.eqb orb].
  rewrite Hp. reflexivity.
Qed.

(** ** diagrams as the ASCII exporter numbers them

    The terminals come first (node IDs [1..T], their edges are [tedges]), then the inner
    nodes bottom-up; entry [j] of [l] has node ID [T + 1 + j].  References are signed. *)
Record ainode := mkA { av : N; at_ : Z; ae : Z }.

Section AsciiDag.
Variable k : kind.
Variable slm : list N.
Variable tedges : list cedge.
Let T := N.of_nat (length tedges).

Definition aref (id : N) : cedge :=
  if id <=? T then nth (N.to_nat (id - 1)) tedges (mkE (RTerm TNaN) false)
  else mkE (RNode (id - T - 1)) false.

Definition sref (z : Z) : cedge :=
  if (z <? 0)%Z then neg (aref (Z.abs_N z)) else aref (Z.abs_N z).

Definition acn (nd : ainode) : cnode := mkN (lvl slm (av nd)) (sref (at_ nd)) (sref (ae nd)).

Definition anodes_upto (j : nat) : list cedge :=
  tedges ++ map (fun i => mkE (RNode (N.of_nat i)) false) (seq 0 j).

Definition astate (l : list ainode) (j : nat) : ist := mkS (map acn (firstn j l)) (anodes_upto j).

Definition achild_ok (l : list ainode) (j : nat) (v : N) (c : Z) : Prop :=
  c <> 0%Z /\ Z.abs_N c < T + 1 + N.of_nat j /\
  (T < Z.abs_N c -> exists nd', nth_error l (N.to_nat (Z.abs_N c - T - 1)) = Some nd' /\ v < av nd') /\
  ((c < 0)%Z -> k = KBCDD).

(** the reduction rule of the kind does not fire and does not normalise *)
Definition norm_free (t e : cedge) : Prop :=
  match k with
  | KBCDD => t <> e /\ ce_tag t = false
  | KZBDD => ce_ref t <> RTerm (TNum 0)
  | KBDD | KMTBDD => t <> e
  end.

Definition awf_at (l : list ainode) (j : nat) (nd : ainode) : Prop :=
  av nd < N.of_nat (length slm) /\ achild_ok l j (av nd) (at_ nd) /\ achild_ok l j (av nd) (ae nd) /\
  norm_free (sref (at_ nd)) (sref (ae nd)).

Definition awf_dag (l : list ainode) : Prop :=
  NoDup (map acn l) /\ forall j nd, nth_error l j = Some nd -> awf_at l j nd.

Hypothesis tedges_terminal : Forall (fun e => exists v, ce_ref e = RTerm v) tedges.
Hypothesis slm_incr : incr slm.
Hypothesis slm_max : Forall (fun x => x < level_max) slm.

Lemma anodes_upto_S j : anodes_upto (S j) = anodes_upto j ++ [mkE (RNode (N.of_nat j)) false].
Proof. unfold anodes_upto. rewrite seq_S, map_app, app_assoc. reflexivity. Qed.

Lemma nth_error_anodes j id : 1 <= id -> id < T + 1 + N.of_nat j ->
  nth_error (anodes_upto j) (N.to_nat (id - 1)) = Some (aref id).
Proof.
  intros H1 H2. unfold anodes_upto, aref. destruct (N.leb_spec id T).
  - rewrite nth_error_app1 by (subst T; lia). apply nth_error_nth'. subst T. lia.
  - rewrite nth_error_app2 by (subst T; lia).
    replace (N.to_nat (id - 1) - length tedges)%nat with (N.to_nat (id - T - 1)) by (subst T; lia).
    rewrite nth_error_map.
    rewrite nth_error_nth' with (d := O) by (rewrite seq_length; lia).
    rewrite seq_nth by lia. cbn. rewrite N2Nat.id. reflexivity.
Qed.

Lemma aref_level l j id : 1 <= id -> id < T + 1 + N.of_nat j -> (j <= length l)%nat ->
  edge_level (st_store (astate l j)) (aref id) =
  if id <=? T then level_max
  else match nth_error l (N.to_nat (id - T - 1)) with Some nd' => lvl slm (av nd') | None => level_max end.
Proof.
  intros H1 H2 Hj. unfold aref, edge_level. destruct (N.leb_spec id T).
  - assert (Hin : In (nth (N.to_nat (id - 1)) tedges (mkE (RTerm TNaN) false)) tedges)
      by (apply nth_In; subst T; lia).
    rewrite Forall_forall in tedges_terminal. destruct (tedges_terminal _ Hin) as [v ->]. reflexivity.
  - cbn [ce_ref]. unfold astate. cbn [st_store].
    rewrite nth_error_map, nth_error_firstn by lia.
    destruct (nth_error l (N.to_nat (id - T - 1))); reflexivity.
Qed.

Lemma mk_node_norm_free store level t e :
  norm_free t e -> (forall x, In x store -> x <> mkN level t e) ->
  mk_node k store level t e = (store ++ [mkN level t e], mkE (RNode (N.of_nat (length store))) false).
Proof.
  unfold norm_free, mk_node. intros Hn Hnew.
  assert (Hne : t <> e -> cedge_eqb t e = false).
  { intros H. destruct (cedge_eqb t e) eqn:E; [|reflexivity]. apply cedge_eqb_eq in E. contradiction. }
  destruct k.
  - rewrite Hne, find_or_add_fresh by assumption. reflexivity.
  - destruct Hn as [Hn Htag]. rewrite Hne, Htag, find_or_add_fresh by assumption. reflexivity.
  - assert (cref_eqb (ce_ref t) (RTerm (TNum 0)) = false).
    { destruct (cref_eqb (ce_ref t) (RTerm (TNum 0))) eqn:E; [|reflexivity]. apply cref_eqb_eq in E. contradiction. }
    rewrite H, find_or_add_fresh by assumption. reflexivity.
  - rewrite Hne, find_or_add_fresh by assumption. reflexivity.
Qed.

(** checks and edge of one child reference *)
Lemma achild_steps l j v c store : (j <= length l)%nat ->
  (forall j nd, nth_error l j = Some nd -> awf_at l j nd) ->
  v < N.of_nat (length slm) ->
  achild_ok l j v c ->
  ascii_child_check (astate l j) (T + 1 + N.of_nat j) (lvl slm v) c = Ok (aref (Z.abs_N c)) /\
  ascii_child_edge k store (aref (Z.abs_N c)) c = Ok (store, sref c).
Proof.
  intros Hj Hwf Hv (Hc0 & Hc1 & Hc2 & Hc3).
  assert (H1 : 1 <= Z.abs_N c) by lia.
  split.
  - unfold ascii_child_check, node_at.
    destruct (N.leb_spec (T + 1 + N.of_nat j) (Z.abs_N c)); [lia|].
    unfold astate at 1. cbn [st_nodes].
    rewrite nth_error_anodes by assumption. cbn [bind].
    rewrite aref_level by assumption.
    destruct (N.leb_spec (Z.abs_N c) T).
    + pose proof (lvl_lt_max slm v slm_max Hv). destruct (N.leb_spec level_max (lvl slm v)); [lia|reflexivity].
    + destruct (Hc2 ltac:(assumption)) as (nd' & Hn & Hlt). rewrite Hn.
      assert (av nd' < N.of_nat (length slm)) by (apply (Hwf _ _ Hn)).
      pose proof (lvl_lt slm _ _ slm_incr Hlt ltac:(assumption)).
      destruct (N.leb_spec (lvl slm (av nd')) (lvl slm v)); [lia|reflexivity].
  - unfold ascii_child_edge, sref. destruct (Z.ltb_spec c 0); [|reflexivity].
    rewrite (Hc3 ltac:(assumption)). reflexivity.
Qed.

Theorem import_ascii_line_inner : forall l j nd,
  awf_dag l -> nth_error l j = Some nd ->
  T + 1 + N.of_nat j <= isize_max -> N.of_nat (length slm) <= 4294967296 ->
  import_ascii_line k true slm (astate l j) (T + 1 + N.of_nat j)
                    (inner_text (T + 1 + N.of_nat j) (av nd) (at_ nd) (ae nd))
  = Ok (astate l (S j)).
Proof.
  intros l j nd [Hnodup Hwf] Hn Hid Hns.
  destruct (Hwf j nd Hn) as (Hv & Hct & Hce & Hnf).
  assert (Hj : (j < length l)%nat) by (apply nth_error_Some; congruence).
  assert (Hidu : T + 1 + N.of_nat j < usize_limit) by (unfold isize_max, usize_limit in *; lia).
  unfold import_ascii_line, inner_text.
  change ([32] ++ dec (av nd) ++ [32] ++ dec_z (at_ nd) ++ [32] ++ dec_z (ae nd))
    with ([32] ++ dec (av nd) ++ 32 :: (dec_z (at_ nd) ++ [32] ++ dec_z (ae nd))).
  rewrite line_head by (try assumption; apply token_dec). cbn [bind]. rewrite N.eqb_refl. cbn [negb].
  rewrite trim_start_sp_token by apply token_dec. cbn [bind].
  rewrite trim_start_token by apply token_dec.
  rewrite split_sp_token by apply token_dec.
  pose proof Hct as (Ht0 & Ht1 & _). pose proof Hce as (He0 & He1 & _).
  rewrite parse_edge_list_two by lia. cbn [bind].
  destruct (Z.eqb_spec (at_ nd) 0); [contradiction|]. destruct (Z.eqb_spec (ae nd) 0); [contradiction|].
  cbn [orb].
  rewrite parse_u32_dec by lia. cbn [bind].
  rewrite lvl_nth_error by assumption.
  destruct (achild_steps l j (av nd) (at_ nd) (st_store (astate l j)) ltac:(lia) Hwf Hv Hct) as [Hc1 Hd1].
  destruct (achild_steps l j (av nd) (ae nd) (st_store (astate l j)) ltac:(lia) Hwf Hv Hce) as [Hc2 Hd2].
  rewrite Hc1. cbn [bind]. rewrite Hc2. cbn [bind]. rewrite Hd1. cbn [bind]. rewrite Hd2. cbn [bind].
  rewrite mk_node_norm_free.
  - unfold astate. cbn [st_store st_nodes].
    rewrite map_length, firstn_length, Nat.min_l by lia.
    rewrite (firstn_snoc l j nd Hn), map_app, anodes_upto_S. reflexivity.
  - exact Hnf.
  - intros x Hx ->. exact (NoDup_map_firstn acn l j nd Hnodup Hn Hx).
Qed.

End AsciiDag.

(** ** the whole ASCII node section *)

Definition ainner (nd : ainode) : anode := AInner (av nd) (at_ nd) (ae nd).

Definition ascii_step (k : kind) (vin : bool) (slm : list N) (st : ist) (id : N) (inp : list byte)
  : res (ist * list byte) :=
  '(line, inp') <- read_line inp ;; st' <- import_ascii_line k vin slm st id line ;; Ok (st', inp').

Lemma import_ascii_loop_S k vin slm n id st inp :
  import_ascii_loop k vin slm (S n) id st inp =
  '(st', inp') <- ascii_step k vin slm st id inp ;; import_ascii_loop k vin slm n (id + 1) st' inp'.
Proof.
  cbn [import_ascii_loop]. unfold ascii_step.
  destruct (read_line inp) as [[line inp']|]; cbn [bind]; [|reflexivity].
  destruct (import_ascii_line k vin slm st id line); reflexivity.
Qed.

(** description and edge of every terminal *)
Definition terms_ok (k : kind) (descs : list (list byte)) (tedges : list cedge) : Prop :=
  Forall2 (fun d e => token d /\ no_nl d /\ parse_terminal k d = Some e) descs tedges.

Lemma Forall2_nth_error {A B} (R : A -> B -> Prop) la lb i a :
  Forall2 R la lb -> nth_error la i = Some a -> exists b, nth_error lb i = Some b /\ R a b.
Proof.
  intros H. revert i. induction H as [|x y la lb Hxy _ IH]; intros [|i] Hi; cbn in *; try discriminate.
  - inversion Hi; subst. eauto.
  - apply IH. exact Hi.
Qed.

Lemma Forall2_len {A B} (R : A -> B -> Prop) la lb : Forall2 R la lb -> length la = length lb.
Proof. induction 1; cbn; congruence. Qed.

Lemma ascii_loop_terms : forall k slm descs tedges rest,
  terms_ok k descs tedges -> N.of_nat (length descs) < usize_limit ->
  import_ascii_loop k true slm (length descs) 1 (mkS [] []) (export_ascii_from 1 (map ATerm descs) ++ rest)
  = Ok (mkS [] tedges, rest).
Proof.
  intros k slm descs tedges rest Hok Hlim.
  assert (Hlen : length descs = length tedges) by (eapply Forall2_len; exact Hok).
  replace (mkS [] tedges) with (mkS [] (firstn (length descs) tedges)) by (rewrite Hlen, firstn_all; reflexivity).
  apply (loop_print (ascii_step k true slm) (import_ascii_loop k true slm)
           (fun id d => export_ascii_line id (ATerm d)) (fun id r => export_ascii_from id (map ATerm r))
           (fun _ _ _ => eq_refl) (import_ascii_loop_S k true slm) (fun _ => eq_refl) (fun _ _ _ => eq_refl)
           (fun i => mkS [] (firstn i tedges)) descs 1 rest) with (n := length descs) (j := O); [|reflexivity].
  intros i d tail Hd. destruct (Forall2_nth_error _ _ _ _ _ Hok Hd) as (e & He & Htok & Hnl & Hp).
  assert (i < length descs)%nat by (apply nth_error_Some; congruence).
  unfold ascii_step. rewrite export_ascii_line_term, read_line_term by assumption. cbn [bind].
  rewrite (import_ascii_line_term k slm _ _ d e) by (try assumption; lia). cbn [bind st_store st_nodes].
  rewrite <- (firstn_snoc tedges i e He). reflexivity.
Qed.

Lemma astate_0 slm tedges l : astate slm tedges l 0 = mkS [] tedges.
Proof. unfold astate, anodes_upto. cbn [firstn map seq]. rewrite app_nil_r. reflexivity. Qed.

Lemma ascii_loop_inner : forall k slm tedges l rest,
  Forall (fun e => exists v, ce_ref e = RTerm v) tedges -> incr slm -> Forall (fun x => x < level_max) slm ->
  awf_dag k slm tedges l ->
  N.of_nat (length tedges) + 1 + N.of_nat (length l) <= isize_max ->
  N.of_nat (length slm) <= 4294967296 ->
  import_ascii_loop k true slm (length l) (N.of_nat (length tedges) + 1 + N.of_nat 0) (astate slm tedges l 0)
    (export_ascii_from (N.of_nat (length tedges) + 1 + N.of_nat 0) (map ainner l) ++ rest)
  = Ok (astate slm tedges l (length l), rest).
Proof.
  intros k slm tedges l rest Hterm Hi Hf Hwf Hlim Hns.
  apply (loop_print (ascii_step k true slm) (import_ascii_loop k true slm)
           (fun id nd => export_ascii_line id (ainner nd)) (fun id r => export_ascii_from id (map ainner r))
           (fun _ _ _ => eq_refl) (import_ascii_loop_S k true slm) (fun _ => eq_refl) (fun _ _ _ => eq_refl)
           (astate slm tedges l) l (N.of_nat (length tedges) + 1) rest) with (n := length l) (j := O); [|reflexivity].
  intros j nd tail Hn. assert (j < length l)%nat by (apply nth_error_Some; congruence).
  unfold ascii_step, ainner. rewrite export_ascii_line_inner, read_line_inner. cbn [bind].
  rewrite (import_ascii_line_inner k slm tedges Hterm Hi Hf l j nd Hwf Hn) by lia. reflexivity.
Qed.

(** The importer reads the exporter's ASCII node section back: the terminals become the
    edges their descriptions parse to, node ID [T + 1 + i] denotes entry [i] of the
    unique table, which holds exactly the exported nodes. *)
Theorem import_export_ascii : forall k slm descs tedges l rest,
  terms_ok k descs tedges ->
  Forall (fun e => exists v, ce_ref e = RTerm v) tedges ->
  incr slm -> Forall (fun x => x < level_max) slm ->
  awf_dag k slm tedges l ->
  N.of_nat (length tedges) + 1 + N.of_nat (length l) <= isize_max ->
  N.of_nat (length slm) <= 4294967296 ->
  import_ascii k true slm (N.of_nat (length descs + length l))
               (export_ascii_nodes (map ATerm descs ++ map ainner l) ++ rest)
  = Ok (astate slm tedges l (length l), rest).
Proof.
  intros k slm descs tedges l rest Hok Hterm Hi Hf Hwf Hlim Hns.
  assert (Hlen : length descs = length tedges) by (eapply Forall2_len; exact Hok).
  unfold import_ascii, export_ascii_nodes. rewrite Nat2N.id.
  rewrite (loop_add (ascii_step k true slm) (import_ascii_loop k true slm)
             (fun _ _ _ => eq_refl) (import_ascii_loop_S k true slm)),
          (print_from_app export_ascii_line export_ascii_from (fun _ => eq_refl) (fun _ _ _ => eq_refl)),
          <- app_assoc, map_length.
  unfold empty_state. rewrite (ascii_loop_terms k slm descs tedges) by (try assumption; unfold isize_max, usize_limit in *; lia).
  cbn [bind fst snd]. rewrite <- (astate_0 slm tedges l).
  replace (1 + N.of_nat (length descs)) with (N.of_nat (length tedges) + 1 + N.of_nat 0) by lia.
  apply ascii_loop_inner; assumption.
Qed.

(** ** the hypotheses are satisfiable: the BDD of x0 ∧ x1 (terminals F = 1, T = 2) *)

Definition ex_descs : list (list byte) := [[70]; [84]].                       (* "F", "T" *)
Definition ex_tedges : list cedge := [mkE (RTerm (TNum 0)) false; mkE (RTerm (TNum 1)) false].
Definition ex_adag : list ainode := [mkA 1 2 1; mkA 0 3 1].

Example ex_terms_ok : terms_ok KBDD ex_descs ex_tedges.
Proof.
  repeat constructor; try discriminate.
Qed.

Example ex_adag_wf : awf_dag KBDD [0; 1] ex_tedges ex_adag.
Proof.
  split.
  - cbn. repeat constructor; cbn; intuition discriminate.
  - intros j nd H. destruct j as [|[|j]]; cbn in H; inversion H; subst; clear H.
    + unfold awf_at, achild_ok. cbn. repeat split; try lia; try discriminate.
    + unfold awf_at, achild_ok. cbn. repeat split; try lia; try discriminate.
      intros _. exists (mkA 1 2 1). split; [reflexivity|cbn; lia].
    + destruct j; discriminate.
Qed.

Example ex_adag_text :
  export_ascii_nodes (map ATerm ex_descs ++ map ainner ex_adag)
  = bs "1 F 0 0
2 T 0 0
3 1 2 1
4 0 3 1
".
Proof. vm_compute. reflexivity. Qed.

Example ex_adag_roundtrip :
  import_ascii KBDD true [0; 1] 4 (export_ascii_nodes (map ATerm ex_descs ++ map ainner ex_adag) ++ trailer)
  = Ok (astate [0; 1] ex_tedges ex_adag 2, trailer).
Proof. vm_compute. reflexivity. Qed.

(** a ZBDD and an MTBDD with negative numbers and infinities, by computation *)
Example ex_zbdd_roundtrip :
  let descs := [[69]; [66]] in                                               (* "E", "B" *)
  let tedges := [mkE (RTerm (TNum 0)) false; mkE (RTerm (TNum 1)) false] in
  let l := [mkA 1 2 2; mkA 0 3 1] in
  import_ascii KZBDD true [0; 1] 4 (export_ascii_nodes (map ATerm descs ++ map ainner l) ++ trailer)
  = Ok (astate [0; 1] tedges l 2, trailer).
Proof. vm_compute. reflexivity. Qed.

Example ex_mtbdd_roundtrip :
  let descs := [bs "-3"; bs "+Inf"; bs "NaN"] in
  let tedges := [mkE (RTerm (TNum (-3))) false; mkE (RTerm TPlusInf) false; mkE (RTerm TNaN) false] in
  let l := [mkA 2 1 2; mkA 0 4 3] in
  import_ascii KMTBDD true [3; 5; 6] 5 (export_ascii_nodes (map ATerm descs ++ map ainner l) ++ trailer)
  = Ok (astate [3; 5; 6] tedges l 2, trailer).
Proof. vm_compute. reflexivity. Qed.

Example ex_bcdd_ascii_roundtrip :
  let descs := [[84]] in
  let tedges := [mkE (RTerm (TNum 1)) false] in
  let l := [mkA 1 1 (-1); mkA 0 2 (-2)] in
  import_ascii KBCDD true [0; 1] 3 (export_ascii_nodes (map ATerm descs ++ map ainner l) ++ trailer)
  = Ok (astate [0; 1] tedges l 2, trailer).
Proof. vm_compute. reflexivity. Qed.
