(** * C15 (package C15h): the model importer never reaches a panic site

    IO/Dddmp.v returns [EInternal] where the Rust importer would index a vector out of bounds
    ([nodes[idx]], [level_suppvar_map[level]]) or where the model's own fuel runs out
    ([bdd_not]).  On ARBITRARY input these places are unreachable: every error of the model
    importer is one of the values that stand for an [io::Error] of the real importer.
    Together with [load_header_no_internal] this is the model-level statement of "malformed
    input makes the importer return an error rather than panic". *)
From Coq Require Import List NArith ZArith Bool Arith Lia.
From OxiVerif Require Import IO.Dddmp IO.DddmpProofs IO.DddmpFile IO.DddmpFileProofs IO.DddmpFileSafety.
Import ListNotations.
Open Scope N_scope.


(** ** Boolean terminals only (what a BDD importer creates) *)

Definition tnum_edge (e : cedge) : Prop :=
  match ce_ref e with RTerm v => exists z, v = TNum z | RNode _ => True end.
Definition tnum_store (s : list cnode) : Prop :=
  Forall (fun n => tnum_edge (cn_t n) /\ tnum_edge (cn_e n)) s.

Lemma tnum_neg e : tnum_edge (neg e) <-> tnum_edge e.
Proof. reflexivity. Qed.

Lemma mk_node_tnum k s level t e s' r :
  tnum_store s -> tnum_edge t -> tnum_edge e -> mk_node k s level t e = (s', r) ->
  tnum_store s' /\ tnum_edge r.
Proof.
  intros Hs Ht He H.
  assert (Hadd : forall t0 e0 tag r1, tnum_edge t0 -> tnum_edge e0 ->
                 find_or_add s (mkN level t0 e0) = (s', r1) -> tnum_store s' /\ tnum_edge (mkE r1 tag)).
  { intros t0 e0 tag r1 H1 H2 F. split; [|destruct (find_or_add_spec _ _ _ _ F) as (i & -> & _); exact I].
    destruct (find_or_add_spec _ _ _ _ F) as (_ & _ & _ & [->| ->]); [exact Hs|].
    apply Forall_app. split; [exact Hs|]. constructor; [split; assumption|constructor]. }
  destruct (mk_node_cases _ _ _ _ _ _ _ H) as [_|_|s' r1 F|s' r1 F].
  - split; assumption.
  - split; assumption.
  - exact (Hadd t e false r1 Ht He F).
  - exact (Hadd (neg t) (neg e) true r1 Ht He F).
Qed.

Lemma bdd_not_unfold s fuel e :
  bdd_not s fuel e =
  match ce_ref e with
  | RTerm (TNum z) => Ok (s, mkE (RTerm (TNum (1 - z))) false)
  | RTerm _ => Err EInternal
  | RNode i =>
    match fuel with
    | O => Err EInternal
    | S f =>
      match nth_error s (N.to_nat i) with
      | None => Err EInternal
      | Some n =>
        '(s1, t') <- bdd_not s f (cn_t n) ;;
        '(s2, e') <- bdd_not s1 f (cn_e n) ;;
        Ok (mk_node KBDD s2 (cn_level n) t' e')
      end
    end
  end.
Proof. destruct fuel; reflexivity. Qed.

(** [not_edge_owned] of a BDD succeeds with any fuel above the index of the edge *)
Lemma bdd_not_ok slm : forall fuel s e,
  store_wf s -> levels_in slm s -> tnum_store s -> edge_in s e -> tnum_edge e -> ref_below fuel e ->
  exists s' e', bdd_not s fuel e = Ok (s', e') /\ tnum_store s' /\ tnum_edge e'.
Proof.
  induction fuel as [|f IH]; intros s e Hwf Hl Hts Hin Hte Hb.
  - unfold ref_below in Hb. unfold tnum_edge in Hte. rewrite bdd_not_unfold. destruct (ce_ref e) as [v|i]; [|lia].
    destruct Hte as [z ->]. eexists _, _. splits; [exact Hts|unfold tnum_edge; cbn; eauto].
  - unfold ref_below in Hb. unfold tnum_edge in Hte. unfold edge_in in Hin. rewrite bdd_not_unfold.
    destruct (ce_ref e) as [v|i] eqn:Er.
    + destruct Hte as [z ->]. eexists _, _. splits; [exact Hts|unfold tnum_edge; cbn; eauto].
    + destruct (nth_error s (N.to_nat i)) as [n|] eqn:En; [|apply nth_error_None in En; lia].
      destruct (Hwf _ _ En) as (R1 & R2 & _ & _).
      assert (I1 : edge_in s (cn_t n)) by (eapply ref_below_in; [|exact R1]; lia).
      assert (I2 : edge_in s (cn_e n)) by (eapply ref_below_in; [|exact R2]; lia).
      pose proof Hts as Hts'. unfold tnum_store in Hts'. rewrite Forall_forall in Hts'.
      destruct (Hts' n (nth_error_In _ _ En)) as [T1 T2].
      destruct (IH s (cn_t n) Hwf Hl Hts I1 T1 ltac:(eapply ref_below_mono; [|exact R1]; lia))
        as (s1 & t' & B1 & Ts1 & Tt').
      rewrite B1. cbn [bind].
      destruct (bdd_not_wf slm _ _ _ _ _ Hwf Hl I1 B1) as (W1 & L1 & X1 & _ & _).
      destruct (IH s1 (cn_e n) W1 L1 Ts1 (edge_in_ext _ _ _ X1 I2) T2 ltac:(eapply ref_below_mono; [|exact R2]; lia))
        as (s2 & e2 & B2 & Ts2 & Te2).
      rewrite B2. cbn [bind].
      destruct (mk_node KBDD s2 (cn_level n) t' e2) as [s3 r] eqn:M.
      destruct (mk_node_tnum _ _ _ _ _ _ _ Ts2 Tt' Te2 M) as [A B].
      exists s3, r. splits; assumption.
Qed.

(** ** the invariant of the node loops *)

Definition not_internal {A} (r : res A) : Prop := r <> Err EInternal.

(** what [st_wf] does not cover: a BDD importer meets Boolean terminals only *)
Definition tn (k : kind) (s : list cnode) (e : cedge) : Prop := k = KBDD -> tnum_store s /\ tnum_edge e.
Definition tn_st (k : kind) (st : ist) : Prop :=
  k = KBDD -> tnum_store (st_store st) /\ Forall tnum_edge (st_nodes st).

Record st_ok (k : kind) (slm : list N) (st : ist) (node_id : N) : Prop := {
  ok_wf : st_wf slm st;
  ok_id : N.of_nat (length (st_nodes st)) + 1 = node_id;
  ok_tnum : tn_st k st
}.

Lemma tn_st_push k st s r : tn_st k st -> tn k s r -> tn_st k (mkS s (st_nodes st ++ [r])).
Proof.
  intros Hst Hr Hk. destruct (Hr Hk) as [Ts Tr]. split; [exact Ts|]. cbn [st_nodes].
  apply Forall_app. split; [apply (Hst Hk)|constructor; [exact Tr|constructor]].
Qed.

Lemma st_ok_next k slm st node_id st' :
  st_ok k slm st node_id -> st_wf slm st' -> length (st_nodes st') = S (length (st_nodes st)) ->
  tn_st k st' -> st_ok k slm st' (node_id + 1).
Proof. intros Hok W L T. split; [exact W| |exact T]. pose proof (ok_id _ _ _ _ Hok). lia. Qed.

Lemma nodes_entry_ok k slm st node_id e : st_ok k slm st node_id -> In e (st_nodes st) ->
  edge_in (st_store st) e /\ tn k (st_store st) e.
Proof.
  intros Hok E. split.
  - pose proof (sw_nodes _ _ (ok_wf _ _ _ _ Hok)) as Hn. rewrite Forall_forall in Hn. exact (Hn _ E).
  - intros Hk. destruct (ok_tnum _ _ _ _ Hok Hk) as [A B]. rewrite Forall_forall in B. exact (conj A (B _ E)).
Qed.

Lemma node_at_ok k slm st node_id i : st_ok k slm st node_id -> i + 1 < node_id ->
  ni_and (node_at st i) (fun e => edge_in (st_store st) e /\ tn k (st_store st) e).
Proof.
  intros Hok Hi. unfold node_at. pose proof (ok_id _ _ _ _ Hok) as Hid.
  destruct (nth_error (st_nodes st) (N.to_nat i)) as [e|] eqn:E; [|apply nth_error_None in E; lia].
  apply ni_and_ok. exact (nodes_entry_ok _ _ _ _ _ Hok (nth_error_In _ _ E)).
Qed.

Lemma complement_if_ok (c : bool) k slm s e :
  store_wf s -> levels_in slm s -> edge_in s e -> tn k s e ->
  ni_and (if c then complement k s e else Ok (s, e)) (fun r => tn k (fst r) (snd r)).
Proof.
  intros Hwf Hl Hin Ht. destruct c; [|apply ni_and_ok; exact Ht].
  destruct k; unfold complement; try (apply ni_and_err; discriminate).
  - destruct (Ht eq_refl) as [Ts Te].
    destruct (bdd_not_ok slm (S (length s)) s e Hwf Hl Ts Hin Te) as (s' & e' & -> & T').
    { unfold ref_below, edge_in in *. destruct (ce_ref e); [exact I|lia]. }
    apply ni_and_ok. intros _. exact T'.
  - apply ni_and_ok. discriminate.
Qed.

Lemma lsm_lookup_in slm l : In l slm -> exists i, lsm_lookup slm l = Ok i.
Proof.
  intros H. unfold lsm_lookup. destruct (find_index (N.eqb l) slm 0) as [i|] eqn:E; [eauto|].
  exfalso. revert E. generalize 0. induction slm as [|x slm IH]; intros i E; [destruct H|].
  cbn in E. destruct (N.eqb_spec l x); [discriminate|]. destruct H as [->|H]; [contradiction|]. eapply IH; eassumption.
Qed.

Lemma resolve_vid_ok slm nlevels vc vid tl el :
  (tl = level_max \/ In tl slm) -> (el = level_max \/ In el slm) ->
  not_internal (resolve_vid slm nlevels vc vid tl el).
Proof.
  intros Ht He. unfold resolve_vid, not_internal.
  assert (Hrel : (cms <- (if N.min tl el =? level_max then Ok nlevels else lsm_lookup slm (N.min tl el)) ;;
                  if cms <? vid then Err EVarRange else Ok (cms - vid)) <> Err EInternal).
  { destruct (N.eqb_spec (N.min tl el) level_max) as [E|E]; cbn [bind]; [destruct (nlevels <? vid); discriminate|].
    assert (Hin : In (N.min tl el) slm).
    { destruct (N.min_spec tl el) as [[_ Hm]|[_ Hm]]; rewrite Hm in *.
      - destruct Ht as [->|Ht]; [contradiction|exact Ht].
      - destruct He as [->|He]; [contradiction|exact He]. }
    destruct (lsm_lookup_in slm _ Hin) as [i ->]. cbn [bind]. destruct (i <? vid); discriminate. }
  destruct vc; try exact Hrel. destruct (N.of_nat (length slm) <=? vid); discriminate.
Qed.

Lemma read_unescape_ni inp : not_internal (read_unescape inp).
Proof.
  unfold read_unescape, not_internal. destruct inp as [|b r]; [discriminate|].
  destruct (b =? 0); [|discriminate]. destruct r as [|c r']; [discriminate|].
  destruct (unescape_code c); discriminate.
Qed.

Lemma dec7_ni : forall inp acc, not_internal (dec7 acc inp).
Proof.
  unfold not_internal.
  induction inp as [inp IH] using (induction_ltof1 _ (@length byte)). unfold ltof in IH.
  intros acc. destruct inp as [|x r]; cbn; [discriminate|].
  assert (Hstep : forall b r', (length r' < length (x :: r))%nat ->
            match dec7_step acc b with
            | Err e => Err e
            | Ok (acc', true) => Ok (acc', r')
            | Ok (acc', false) => dec7 acc' r'
            end <> Err EInternal).
  { intros b r' Hlen. unfold dec7_step. destruct (shl7_limit <=? acc); [discriminate|].
    destruct (_ =? _); [discriminate|apply IH; exact Hlen]. }
  destruct (x =? 0); [|apply Hstep; cbn; lia].
  destruct r as [|c r']; [discriminate|]. destruct (unescape_code c); [|discriminate]. apply Hstep. cbn. lia.
Qed.

Lemma decode_7bit_ni inp : not_internal (decode_7bit inp).
Proof. apply dec7_ni. Qed.

Lemma idx_ref_ok inp node_id c : ni_and (idx_ref inp node_id c) (fun r => fst r + 1 < node_id).
Proof.
  split; [|intros [i inp'] E; exact (proj1 (idx_ref_spec _ _ _ _ _ E))].
  unfold idx_ref. apply (ni_bind _ _ (fun _ => True)).
  - destruct c; try discriminate; [apply decode_7bit_ni|].
    apply (ni_bind _ _ (fun _ => True)); [apply decode_7bit_ni|].
    intros [d inp'] _. destruct (node_id <? d); [apply ni_and_err|apply ni_and_ok]; easy.
  - intros [id inp'] _. destruct (id =? 0); [apply ni_and_err; discriminate|].
    destruct (node_id <=? id); [apply ni_and_err|apply ni_and_ok]; easy.
Qed.

(** one node of the binary node section *)
Lemma import_bin_node_ok k slm nlevels terminal st node_id inp :
  st_ok k slm st node_id -> (exists v, ce_ref terminal = RTerm v) -> (k = KBDD -> tnum_edge terminal) ->
  ni_and (import_bin_node k slm nlevels terminal st node_id inp)
         (fun r => st_ok k slm (fst r) (node_id + 1)).
Proof.
  intros Hok Hterm Htt. pose proof (ok_wf _ _ _ _ Hok) as Hst.
  (* [import_bin_node_wf] gives the table part of the invariant; the walk is about the rest *)
  apply (ni_and_impl _ (fun r => tn_st k (fst r))).
  { intros [st' inp'] E T. destruct (import_bin_node_wf _ _ _ _ _ _ _ _ _ Hst Hterm E) as (W & L & _ & _).
    exact (st_ok_next _ _ _ _ _ Hok W L T). }
  unfold import_bin_node.
  apply ni_bind; [apply read_unescape_ni|]. intros [b inp0] _.
  destruct (split_node_code b) as [[[vc tc] ecompl] ec].
  destruct (code_terminal_or vc) as [->|Hvc].
  { apply ni_and_ok. apply tn_st_push; [exact (ok_tnum _ _ _ _ Hok)|].
    intros Hk. exact (conj (proj1 (ok_tnum _ _ _ _ Hok Hk)) (Htt Hk)). }
  rewrite code_match by exact Hvc.
  apply ni_bind; [destruct (has_arg vc); [apply decode_7bit_ni|discriminate]|]. intros [vid inp1] _.
  eapply ni_and_bind; [apply idx_ref_ok|]. intros [ti inp2] _ Hti.
  eapply ni_and_bind; [exact (node_at_ok _ _ _ _ _ Hok Hti)|]. intros t _ [It Tt].
  eapply ni_and_bind; [apply idx_ref_ok|]. intros [ei inp3] _ Hei.
  eapply ni_and_bind; [exact (node_at_ok _ _ _ _ _ Hok Hei)|]. intros e _ [Ie Te].
  eapply ni_and_bind; [exact (complement_if_ok ecompl k slm _ _ (sw_store _ _ Hst) (sw_levels _ _ Hst) Ie Te)|].
  intros [store e2] _ T2.
  apply ni_bind; [apply resolve_vid_ok; apply (edge_level_in slm); (apply Hst || assumption)|]. intros vid' _.
  destruct (nth_error slm (N.to_nat vid')) as [level|]; [|apply ni_and_err; discriminate].
  destruct (_ || _); [apply ni_and_err; discriminate|].
  destruct (mk_node k store level t e2) as [store' r] eqn:M. apply ni_and_ok.
  apply tn_st_push; [exact (ok_tnum _ _ _ _ Hok)|].
  intros Hk. destruct (T2 Hk) as [Ts Te2]. exact (mk_node_tnum _ _ _ _ _ _ _ Ts (proj2 (Tt Hk)) Te2 M).
Qed.

Lemma st_ok_empty k slm : st_ok k slm empty_state 1.
Proof. split; [apply st_wf_empty|reflexivity|intros _; split; constructor]. Qed.

Lemma import_bin_loop_ok k slm nlevels terminal :
  (exists v, ce_ref terminal = RTerm v) -> (k = KBDD -> tnum_edge terminal) ->
  forall n node_id st inp, st_ok k slm st node_id ->
  ni_and (import_bin_loop k slm nlevels terminal n node_id st inp)
         (fun r => st_ok k slm (fst r) (node_id + N.of_nat n)).
Proof.
  intros Hterm Htt. induction n as [|n IH]; intros node_id st inp Hok; cbn [import_bin_loop].
  - apply ni_and_ok. cbn [fst]. rewrite N.add_0_r. exact Hok.
  - eapply ni_and_bind; [exact (import_bin_node_ok k slm nlevels terminal st node_id inp Hok Hterm Htt)|].
    intros [st1 inp1] _ Hok1.
    replace (node_id + N.of_nat (S n)) with (node_id + 1 + N.of_nat n) by lia. exact (IH _ _ _ Hok1).
Qed.

Lemma import_bin_ok k slm nlevels nnodes inp :
  ni_and (import_bin k slm nlevels nnodes inp) (fun r => st_ok k slm (fst r) (1 + nnodes)).
Proof.
  unfold import_bin. destruct (N.eqb_spec nnodes 0) as [->|Hn]; [apply ni_and_ok; apply st_ok_empty|].
  destruct (bin_terminal k) as [t|] eqn:Et; [|apply ni_and_err; discriminate].
  eapply ni_and_impl; [|apply import_bin_loop_ok; [exact (bin_terminal_term _ _ Et)| |apply st_ok_empty]].
  - intros r _ H. rewrite N2Nat.id in H. exact H.
  - intros _. destruct k; inversion Et; subst; unfold tnum_edge; cbn; eauto.
Qed.

(** *** ASCII *)

Lemma parse_unsigned_go_ni limit : forall s acc num, not_internal (parse_unsigned_go limit s acc num).
Proof.
  unfold not_internal. induction s as [|c s IH]; intros acc num; cbn; [destruct num; discriminate|].
  destruct (is_digit c).
  - destruct (limit <=? acc * 10 + (c - 48)); [discriminate|apply IH].
  - destruct (is_sp c); [|discriminate]. destruct num; [discriminate|apply IH].
Qed.

Lemma parse_edge_list_go_ni : forall s i n num acc, not_internal (parse_edge_list_go s i n num acc).
Proof.
  unfold not_internal. induction s as [|c s IH]; intros i n num acc; cbn; [discriminate|].
  destruct (is_digit c).
  - destruct (isize_max <? i * 10 + (c - 48)); [discriminate|apply IH].
  - destruct (c =? 45).
    + destruct n; [discriminate|]. destruct num; [discriminate|apply IH].
    + destruct (is_sp c); [|discriminate]. destruct num; apply IH.
Qed.

Lemma parse_terminal_tnum tok e : parse_terminal KBDD tok = Some e -> tnum_edge e.
Proof.
  unfold parse_terminal. destruct (one_of tok true_lits); [intros H; inversion H; unfold tnum_edge; cbn; eauto|].
  destruct (one_of tok false_lits); [intros H; inversion H; unfold tnum_edge; cbn; eauto|discriminate].
Qed.

Lemma ascii_child_check_ok k slm st node_id level child :
  st_ok k slm st node_id -> child <> 0%Z ->
  ni_and (ascii_child_check st node_id level child)
         (fun e => edge_in (st_store st) e /\ tn k (st_store st) e).
Proof.
  intros Hok Hc. unfold ascii_child_check.
  destruct (N.leb_spec node_id (Z.abs_N child)); [apply ni_and_err; discriminate|].
  eapply ni_and_bind; [apply (node_at_ok _ _ _ _ _ Hok); lia|]. intros e _ He.
  destruct (_ <=? level); [apply ni_and_err; discriminate|apply ni_and_ok; exact He].
Qed.

Lemma import_ascii_line_ok k vin slm st node_id line :
  st_ok k slm st node_id ->
  ni_and (import_ascii_line k vin slm st node_id line) (fun st' => st_ok k slm st' (node_id + 1)).
Proof.
  intros Hok. pose proof (ok_wf _ _ _ _ Hok) as Hst.
  apply (ni_and_impl _ (tn_st k)).
  { intros st' E T. destruct (import_ascii_line_wf _ _ _ _ _ _ _ Hst E) as (W & L & _).
    exact (st_ok_next _ _ _ _ _ Hok W L T). }
  unfold import_ascii_line.
  apply ni_bind; [apply (parse_unsigned_go_ni usize_limit line 0 false)|]. intros [rest nid] _.
  destruct (negb (nid =? node_id)); [apply ni_and_err; discriminate|].
  apply ni_bind.
  { destruct vin; [discriminate|destruct (split_sp (trim_start rest)) as [[? ?]|]; discriminate]. }
  intros rest1 _.
  destruct (split_sp (trim_start rest1)) as [[var_tok rest2]|]; [|apply ni_and_err; discriminate].
  apply ni_bind; [apply (parse_edge_list_go_ni rest2 0 false false [])|]. intros children _.
  destruct children as [|c1 [|c2 [|c3 cs]]]; try (apply ni_and_err; discriminate).
  destruct ((c1 =? 0)%Z || (c2 =? 0)%Z) eqn:Ez.
  { destruct (parse_terminal k var_tok) as [e|] eqn:Et; [|apply ni_and_err; discriminate].
    apply ni_and_ok. apply tn_st_push; [exact (ok_tnum _ _ _ _ Hok)|].
    intros ->. exact (conj (proj1 (ok_tnum _ _ _ _ Hok eq_refl)) (parse_terminal_tnum _ _ Et)). }
  apply orb_false_iff in Ez. destruct Ez as [Hc1 Hc2]. apply Z.eqb_neq in Hc1, Hc2.
  apply ni_bind; [apply (parse_unsigned_go_ni 4294967296 var_tok 0 false)|]. intros [r0 var_id] _.
  destruct (nth_error slm (N.to_nat var_id)) as [level|]; [|apply ni_and_err; discriminate].
  eapply ni_and_bind; [exact (ascii_child_check_ok k slm st node_id level c1 Hok Hc1)|]. intros e1 _ [I1 T1].
  eapply ni_and_bind; [exact (ascii_child_check_ok k slm st node_id level c2 Hok Hc2)|]. intros e2 _ [I2 T2].
  eapply ni_and_bind;
    [exact (complement_if_ok _ k slm _ _ (sw_store _ _ Hst) (sw_levels _ _ Hst) I1 T1)|].
  intros [s1 e1'] A1 T1'.
  destruct (complement_if_wf _ _ slm _ _ _ _ (sw_store _ _ Hst) (sw_levels _ _ Hst) I1 A1) as (W1 & Lv1 & X1 & _).
  eapply ni_and_bind; [apply (complement_if_ok _ k slm _ _ W1 Lv1 (edge_in_ext _ _ _ X1 I2))|].
  { intros Hk. exact (conj (proj1 (T1' Hk)) (proj2 (T2 Hk))). }
  intros [s2 e2'] _ T2'.
  destruct (mk_node k s2 level e1' e2') as [s3 r] eqn:M. apply ni_and_ok.
  apply tn_st_push; [exact (ok_tnum _ _ _ _ Hok)|].
  intros Hk. destruct (T2' Hk) as [Ts2 Te2]. exact (mk_node_tnum _ _ _ _ _ _ _ Ts2 (proj2 (T1' Hk)) Te2 M).
Qed.

Lemma read_line_ni inp : read_line inp <> Err EInternal.
Proof. unfold read_line. destruct inp; [discriminate|]. destruct (take_line (b :: inp)); discriminate. Qed.

Lemma import_ascii_loop_ok k vin slm : forall n node_id st inp, st_ok k slm st node_id ->
  ni_and (import_ascii_loop k vin slm n node_id st inp)
         (fun r => st_ok k slm (fst r) (node_id + N.of_nat n)).
Proof.
  induction n as [|n IH]; intros node_id st inp Hok; cbn [import_ascii_loop].
  - apply ni_and_ok. cbn [fst]. rewrite N.add_0_r. exact Hok.
  - apply ni_bind; [apply read_line_ni|]. intros [line inp1] _.
    eapply ni_and_bind; [exact (import_ascii_line_ok k vin slm st node_id line Hok)|]. intros st1 _ Hok1.
    replace (node_id + N.of_nat (S n)) with (node_id + 1 + N.of_nat n) by lia. exact (IH _ _ _ Hok1).
Qed.

(** *** roots and the whole [import] *)

Lemma import_roots_ok k slm : forall rootids st node_id, st_ok k slm st node_id ->
  not_internal (import_roots k st rootids).
Proof.
  intros rootids st node_id Hok. apply (ni_and_ni _ (fun _ => True)). revert st Hok.
  induction rootids as [|r rs IH]; intros st Hok; cbn [import_roots]; [apply ni_and_ok; exact I|].
  destruct (r =? 0)%Z; [apply ni_and_err; discriminate|].
  pose proof (ok_wf _ _ _ _ Hok) as Hst.
  destruct (nth_error (st_nodes st) (N.to_nat (Z.abs_N r - 1))) as [e|] eqn:E; cbn [bind]; [|apply ni_and_err; discriminate].
  destruct (nodes_entry_ok _ _ _ _ _ Hok (nth_error_In _ _ E)) as [Ie Te].
  eapply ni_and_bind; [exact (complement_if_ok _ k slm _ _ (sw_store _ _ Hst) (sw_levels _ _ Hst) Ie Te)|].
  intros [store e'] C T.
  destruct (complement_if_wf _ _ slm _ _ _ _ (sw_store _ _ Hst) (sw_levels _ _ Hst) Ie C) as (W & L & X & _).
  apply ni_bind; [|intros [st2 es] _; apply ni_and_ok; exact I].
  apply IH. split; cbn.
  - split; cbn; [exact W|exact L|]. eapply Forall_edge_in_ext; [exact X|apply Hst].
  - apply (ok_id _ _ _ _ Hok).
  - intros Hk. exact (conj (proj1 (T Hk)) (proj2 (ok_tnum _ _ _ _ Hok Hk))).
Qed.

(** the importer after the header never fails internally, whatever the input and the
    parameters are *)
Theorem import_file_no_internal k ascii vin slm nlevels nnodes rootids inp :
  import_file k ascii vin slm nlevels nnodes rootids inp <> Err EInternal.
Proof.
  apply (ni_and_ni _ (fun _ => True)). unfold import_file.
  apply (ni_and_bind _ _ (fun r => exists node_id, st_ok k slm (fst r) node_id)).
  - destruct ascii.
    + eapply ni_and_impl; [|apply import_ascii_loop_ok, st_ok_empty]. intros r _ H. eexists. exact H.
    + eapply ni_and_impl; [|apply import_bin_ok]. intros r _ H. eexists. exact H.
  - intros [st rest] _ [node_id Hok]. destruct (negb (reads_end rest)); [apply ni_and_err; discriminate|].
    split; [exact (import_roots_ok k slm rootids st node_id Hok)|trivial].
Qed.

(** NO PANIC: the whole model importer, on every input, either accepts or returns one of the
    error values that stand for an [io::Error] of the real importer (or reports that the caller
    passed the wrong number of support variables) *)
Theorem import_whole_no_internal k slm nlevels inp :
  import_whole k slm nlevels inp <> WHdr HInternal /\ import_whole k slm nlevels inp <> WBody EInternal.
Proof.
  unfold import_whole. pose proof (load_header_no_internal inp) as Hl.
  destruct (load_header inp) as [[h rest]|e].
  - destruct (negb (Nat.eqb (length slm) (length (h_ids h)))); [split; discriminate|].
    unfold import_body.
    pose proof (import_file_no_internal k (h_ascii h) (varinfo_none (h_varinfo h)) slm nlevels (h_nnodes h) (h_rootids h) rest) as Hi.
    destruct (import_file k (h_ascii h) (varinfo_none (h_varinfo h)) slm nlevels (h_nnodes h) (h_rootids h) rest) as [[st roots]|e];
      split; try discriminate. intros E. apply Hi. inversion E. reflexivity.
  - split; [|discriminate]. intros E. apply Hl. inversion E. reflexivity.
Qed.
