(** * C15 (package C15h): the header loader [load_header] of IO/DddmpFile.v

    - fuel: the loop needs at most one iteration per input byte, any larger fuel gives the
      same result;
    - no panic: the loader never returns [HInternal], the value the model returns where the
      Rust code would index out of bounds or [unwrap] a [None] (and on fuel exhaustion);
    - SAFETY OF ACCEPTANCE: every accepted header is well-formed ([header_wf]): the relations
      between the fields that [DumpHeader::load] promises to its users hold. *)
From Coq Require Import String Ascii.
From Coq Require Import List NArith ZArith Bool Arith Lia.
From OxiVerif Require Import Base.ListFacts IO.Dddmp IO.DddmpProofs IO.DddmpFile.
Import ListNotations.
Open Scope N_scope.


(** ** the result monad *)

Lemma hbind_ok {A B} (r : hres A) (f : A -> hres B) b :
  hbind r f = HOk b -> exists a, r = HOk a /\ f a = HOk b.
Proof. destruct r; cbn; [eauto|discriminate]. Qed.

Lemma hmap_ok {A B} (f : A -> B) (r : hres A) b : hmap f r = HOk b -> exists a, r = HOk a /\ b = f a.
Proof. destruct r; cbn; intros H; inversion H; eauto. Qed.

Lemma guard_ok b e : guard b e = HOk tt -> b = true.
Proof. destruct b; [reflexivity|discriminate]. Qed.

(** "no panic": the result is not the internal error *)
Definition no_int {A} (r : hres A) : Prop := r <> HErr HInternal.

Lemma no_int_ok {A} (a : A) : no_int (HOk a).
Proof. discriminate. Qed.

Lemma no_int_err {A} e : e <> HInternal -> no_int (@HErr A e).
Proof. intros H E. inversion E. contradiction. Qed.

Lemma no_int_hmap {A B} (f : A -> B) r : no_int r -> no_int (hmap f r).
Proof. destruct r; cbn; [discriminate|]. intros H E. apply H. inversion E. reflexivity. Qed.

Lemma no_int_guard b e : e <> HInternal -> no_int (guard b e).
Proof. destruct b; [discriminate|apply no_int_err]. Qed.

Definition hni_and {A} (r : hres A) (P : A -> Prop) : Prop := no_int r /\ forall a, r = HOk a -> P a.

Lemma hni_ok {A} (a : A) (P : A -> Prop) : P a -> hni_and (HOk a) P.
Proof. intros H. split; [discriminate|]. intros a' E. inversion E; subst. exact H. Qed.

Lemma hni_err {A} e (P : A -> Prop) : e <> HInternal -> hni_and (HErr e) P.
Proof. intros H. split; [apply no_int_err; exact H|discriminate]. Qed.

Lemma hni_bind {A B} (r : hres A) (f : A -> hres B) (Q : A -> Prop) (P : B -> Prop) :
  hni_and r Q -> (forall a, r = HOk a -> Q a -> hni_and (f a) P) -> hni_and (hbind r f) P.
Proof.
  intros [Hr Hq] Hf. destruct r as [a|e]; cbn [hbind].
  - apply Hf; [reflexivity|apply Hq; reflexivity].
  - split; [intros E; apply Hr; inversion E; reflexivity|discriminate].
Qed.

Lemma hni_guard {B} b e (f : unit -> hres B) (P : B -> Prop) :
  e <> HInternal -> (b = true -> hni_and (f tt) P) -> hni_and (hbind (guard b e) f) P.
Proof. intros He Hf. destruct b; cbn [guard hbind]; [apply Hf; reflexivity|apply hni_err; exact He]. Qed.

Lemma hni_ni {A} (r : hres A) : no_int r -> hni_and r (fun _ => True).
Proof. intros H. split; [exact H|trivial]. Qed.

Lemma hni_impl {A} (r : hres A) (P Q : A -> Prop) :
  (forall a, r = HOk a -> P a -> Q a) -> hni_and r P -> hni_and r Q.
Proof. intros H [Hr Hp]. split; [exact Hr|]. intros a E. apply (H a E). apply Hp. exact E. Qed.

(** ** the parsers *)

Lemma parse_single_go_spec limit : forall s acc num v,
  acc < limit -> parse_single_go limit s acc num = HOk v -> v < limit.
Proof.
  induction s as [|c s IH]; intros acc num v Ha H; cbn in H.
  - destruct num; inversion H; subst. exact Ha.
  - destruct (is_digit c); [|discriminate].
    destruct (N.leb_spec limit (acc * 10 + (c - 48))); [discriminate|]. eapply IH; eassumption.
Qed.

Lemma parse_single_go_no_int limit : forall s acc num, no_int (parse_single_go limit s acc num).
Proof.
  induction s as [|c s IH]; intros acc num; cbn.
  - destruct num; [discriminate|apply no_int_err; discriminate].
  - destruct (is_digit c); [|apply no_int_err; discriminate].
    destruct (limit <=? acc * 10 + (c - 48)); [apply no_int_err; discriminate|apply IH].
Qed.

Lemma parse_u32_list_go_spec : forall s i num l,
  i < u32_limit -> parse_u32_list_go s i num = HOk l -> Forall (fun x => x < u32_limit) l.
Proof.
  induction s as [|c s IH]; intros i num l Hi H; cbn in H.
  - destruct num; inversion H; subst; repeat constructor. exact Hi.
  - destruct (is_digit c).
    + destruct (N.leb_spec u32_limit (i * 10 + (c - 48))); [discriminate|]. eapply IH; eassumption.
    + destruct (is_sp c); [|discriminate]. destruct num.
      * apply hmap_ok in H. destruct H as (l' & H & ->). constructor; [exact Hi|].
        eapply IH; [|exact H]. reflexivity.
      * eapply IH; eassumption.
Qed.

Lemma parse_u32_list_go_no_int : forall s i num, no_int (parse_u32_list_go s i num).
Proof.
  induction s as [|c s IH]; intros i num; cbn; [discriminate|].
  destruct (is_digit c).
  - destruct (u32_limit <=? i * 10 + (c - 48)); [apply no_int_err; discriminate|apply IH].
  - destruct (is_sp c); [|apply no_int_err; discriminate].
    destruct num; [apply no_int_hmap|]; apply IH.
Qed.

Lemma parse_edge_list_go_spec : forall s i n num acc l,
  i <= isize_max -> Forall (fun z => Z.abs_N z <= isize_max) acc ->
  parse_edge_list_go s i n num acc = Ok l -> Forall (fun z => Z.abs_N z <= isize_max) l.
Proof.
  assert (Hpush : forall (n : bool) i, i <= isize_max ->
            Z.abs_N (if n then Z.opp (Z.of_N i) else Z.of_N i) <= isize_max).
  { intros [|] i Hi; lia. }
  induction s as [|c s IH]; intros i n num acc l Hi Hacc H; cbn in H.
  - destruct num; inversion H; subst; [|exact Hacc].
    apply Forall_app. split; [exact Hacc|]. constructor; [apply Hpush; exact Hi|constructor].
  - destruct (is_digit c).
    + destruct (N.ltb_spec isize_max (i * 10 + (c - 48))); [discriminate|]. eapply IH; eassumption.
    + destruct (c =? 45).
      * destruct n; [discriminate|]. destruct num; [discriminate|]. eapply IH; eassumption.
      * destruct (is_sp c); [|discriminate]. destruct num.
        -- eapply IH; [| |exact H]; [unfold isize_max; lia|].
           apply Forall_app. split; [exact Hacc|]. constructor; [apply Hpush; exact Hi|constructor].
        -- eapply IH; eassumption.
Qed.

Lemma parse_rootids_spec s l : parse_rootids s = HOk l -> Forall (fun z => Z.abs_N z <= isize_max) l.
Proof.
  unfold parse_rootids, parse_edge_list. destruct (parse_edge_list_go s 0 false false []) as [l'|e] eqn:E.
  - intros H; inversion H; subst. eapply parse_edge_list_go_spec; [| |exact E]; [unfold isize_max; lia|constructor].
  - destruct e; discriminate.
Qed.

Lemma parse_rootids_no_int s : no_int (parse_rootids s).
Proof.
  unfold parse_rootids. destruct (parse_edge_list s) as [l|e]; [discriminate|].
  destruct e; apply no_int_err; discriminate.
Qed.

(** [from_utf8_lossy] never turns a non-empty string into the empty one *)
Lemma utf8_lossy_nonempty s : s <> [] -> utf8_lossy s <> [].
Proof.
  destruct s as [|b r]; [contradiction|]. intros _. cbn [utf8_lossy]. unfold repl_char.
  repeat match goal with
         | |- context [if ?c then _ else _] => destruct c
         | |- context [match ?l with [] => _ | _ :: _ => _ end] => destruct l
         end; cbn; discriminate.
Qed.

Definition nonempty_names (l : list (list byte)) : Prop := Forall (fun n => n <> []) l.

Lemma str_list_go_nonempty : forall s cur, nonempty_names (str_list_go s cur).
Proof.
  assert (Hrev : forall (c : byte) cur, rev (c :: cur) <> []).
  { intros c cur. cbn. destruct (rev cur); discriminate. }
  induction s as [|c s IH]; intros cur; cbn.
  - destruct cur; [constructor|]. constructor; [apply Hrev|constructor].
  - destruct (is_sp c); [|apply IH].
    destruct cur; [apply IH|]. constructor; [apply Hrev|apply IH].
Qed.

Lemma parse_str_list_nonempty s : nonempty_names (parse_str_list s).
Proof.
  unfold parse_str_list, nonempty_names. rewrite Forall_map.
  eapply Forall_impl; [|apply str_list_go_nonempty]. intros a. apply utf8_lossy_nonempty.
Qed.

(** ** invariant of the loop state: what the parsers guarantee *)

Record state_ok (s : hstate) : Prop := {
  so_nnodes : s_nnodes s < usize_limit;
  so_nvars : s_nvars s < u32_limit;
  so_nsupp : s_nsupp s < u32_limit;
  so_nroots : s_nroots s < usize_limit;
  so_ids : Forall (fun x => x < u32_limit) (s_ids s);
  so_permids : Forall (fun x => x < u32_limit) (s_permids s);
  so_auxids : Forall (fun x => x < u32_limit) (s_auxids s);
  so_varnames : nonempty_names (s_varnames s);
  so_suppnames : nonempty_names (s_suppnames s);
  so_ordered : nonempty_names (s_ordered s);
  so_rootids : Forall (fun z => Z.abs_N z <= isize_max) (s_rootids s);
  so_rootnames : nonempty_names (s_rootnames s)
}.

Lemma init_state_ok : state_ok init_state.
Proof. split; cbn; try constructor; reflexivity. Qed.

Definition entry_ok (e : entry) : Prop :=
  match e with
  | ENnodes n | ENroots n => n < usize_limit
  | ENvars n | ENsupp n => n < u32_limit
  | EVarnames l | ESuppnames l | EOrdered l | ERootnames l => nonempty_names l
  | EIds l | EPermids l | EAuxids l => Forall (fun x => x < u32_limit) l
  | ERootids l => Forall (fun z => Z.abs_N z <= isize_max) l
  | _ => True
  end.

Definition entry_res_ok (r : hres entry) : Prop := no_int r /\ forall e, r = HOk e -> entry_ok e.

Lemma entry_res_hmap {A} (mk : A -> entry) (r : hres A) :
  no_int r -> (forall a, r = HOk a -> entry_ok (mk a)) -> entry_res_ok (hmap mk r).
Proof.
  intros Hn Hok. split; [apply no_int_hmap; exact Hn|].
  intros e H. apply hmap_ok in H. destruct H as (a & H & ->). exact (Hok a H).
Qed.

Lemma entry_res_if (b : bool) x y : entry_res_ok x -> entry_res_ok y -> entry_res_ok (if b then x else y).
Proof. destruct b; auto. Qed.

(** one case per key of the [match]: a constant entry, a list of names, or a number parser *)
Lemma parse_entry_spec line : entry_res_ok (parse_entry line).
Proof.
  unfold parse_entry. destruct (split_sp line) as [[key value]|]; cbv beta iota zeta;
    repeat apply entry_res_if;
    first [ apply entry_res_hmap;
            [ first [apply parse_single_go_no_int | apply parse_u32_list_go_no_int | apply parse_rootids_no_int]
            | intros x H; cbv beta iota delta [entry_ok];
              first [ eapply parse_single_go_spec; [|exact H]; reflexivity
                    | eapply parse_u32_list_go_spec; [|exact H]; reflexivity
                    | eapply parse_rootids_spec; exact H ] ]
          | split; [first [discriminate | apply no_int_err; discriminate]|];
            intros e H; inversion H; subst; cbv beta iota delta [entry_ok];
            first [exact I | apply parse_str_list_nonempty] ].
Qed.

Lemma apply_entry_ok st e : state_ok st -> entry_ok e -> state_ok (apply_entry st e).
Proof.
  intros [] He. destruct st, e; cbn in *; split; cbn; assumption.
Qed.

(** ** the line loop: fuel *)

(** any fuel above the number of input bytes gives the same result *)
Theorem header_loop_fuel : forall f1 f2 st inp,
  (length inp < f1)%nat -> (length inp < f2)%nat -> header_loop f1 st inp = header_loop f2 st inp.
Proof.
  induction f1 as [|f1 IH]; intros f2 st inp H1 H2; [lia|]. destruct f2 as [|f2]; [lia|]. cbn.
  destruct (read_line inp) as [[line rest]|] eqn:R; [|reflexivity].
  apply read_line_shorter in R.
  destruct (parse_entry line) as [e|]; [|reflexivity]. cbn.
  pose proof (IH f2 (apply_entry st e) rest ltac:(lia) ltac:(lia)) as Hrec.
  destruct e; try exact Hrec. reflexivity.
Qed.

(** the loop keeps the invariant, never runs out of fuel, and returns a suffix of the input *)
Lemma header_loop_spec : forall f st inp,
  (length inp < f)%nat -> state_ok st ->
  hni_and (header_loop f st inp)
          (fun r => state_ok (fst r) /\ exists pre, inp = pre ++ snd r /\ pre <> []).
Proof.
  induction f as [|f IH]; intros st inp Hf Hst; [lia|]. cbn [header_loop].
  destruct (read_line inp) as [[line rest]|] eqn:R; [|apply hni_err; discriminate].
  pose proof (read_line_shorter _ _ _ R) as Hlen.
  destruct (read_line_suffix _ _ _ R) as (pre & Hpre & Hne).
  eapply hni_bind; [exact (parse_entry_spec line)|]. intros e _ Hok.
  assert (Hrec : hni_and (header_loop f (apply_entry st e) rest)
                   (fun r => state_ok (fst r) /\ exists pre', inp = pre' ++ snd r /\ pre' <> [])).
  { eapply hni_impl; [|exact (IH (apply_entry st e) rest ltac:(lia) (apply_entry_ok _ _ Hst Hok))].
    intros [st' rest'] _ (O & pre' & -> & _). split; [exact O|].
    exists (pre ++ pre'). split; [rewrite <- app_assoc; exact Hpre|].
    destruct pre; [contradiction|discriminate]. }
  destruct e; try exact Hrec.
  apply hni_ok. split; [exact Hst|]. exists pre. split; [exact Hpre|exact Hne].
Qed.

(** ** list helpers *)

Lemma set_nth_some {A} : forall n (x : A) l, (n < length l)%nat -> exists l', set_nth n x l = Some l'.
Proof.
  induction n as [|n IH]; intros x [|y l] H; cbn in *; try lia; [eauto|].
  destruct (IH x l ltac:(lia)) as [l' ->]. eauto.
Qed.

Lemma set_nth_spec {A} : forall n (x : A) l l', set_nth n x l = Some l' ->
  length l' = length l /\ nth_error l' n = Some x /\ (n < length l)%nat /\
  forall m, m <> n -> nth_error l' m = nth_error l m.
Proof.
  induction n as [|n IH]; intros x [|y l] l' H; cbn in H; try discriminate.
  - inversion H; subst. splits; cbn; [lia|]. intros [|m] Hm; [contradiction|reflexivity].
  - destruct (set_nth n x l) as [r|] eqn:E; [|discriminate]. inversion H; subst.
    destruct (IH _ _ _ E) as (L & N1 & Lt & O). splits; cbn; [lia|exact N1|lia|].
    intros [|m] Hm; [reflexivity|]. cbn. apply O. lia.
Qed.

(** number of elements satisfying [p] *)
Definition count {A} (p : A -> bool) (l : list A) : nat := length (filter p l).

Lemma count_set_nth {A} (p : A -> bool) : forall n x l l' old,
  set_nth n x l = Some l' -> nth_error l n = Some old ->
  (count p l' + (if p old then 1 else 0) = count p l + (if p x then 1 else 0))%nat.
Proof.
  unfold count. induction n as [|n IH]; intros x [|y l] l' old H Ho; cbn in H, Ho; try discriminate.
  - inversion H; inversion Ho; subst. cbn. destruct (p old), (p x); cbn; lia.
  - destruct (set_nth n x l) as [r|] eqn:E; [|discriminate]. inversion H; subst.
    specialize (IH _ _ _ _ E Ho). cbn. destruct (p y); cbn; lia.
Qed.

Lemma count_le {A} (p : A -> bool) l : (count p l <= length l)%nat.
Proof. unfold count. induction l as [|x l IH]; cbn; [lia|]. destruct (p x); cbn; lia. Qed.

Lemma count_all {A} (p : A -> bool) l : Forall (fun x => p x = true) l -> count p l = length l.
Proof.
  unfold count. induction 1 as [|x l Hx _ IH]; cbn; [reflexivity|]. rewrite Hx. cbn. lia.
Qed.

Lemma nth_error_combine {A B} : forall (la : list A) (lb : list B) i a b,
  nth_error (combine la lb) i = Some (a, b) <-> nth_error la i = Some a /\ nth_error lb i = Some b.
Proof.
  induction la as [|x la IH]; intros [|y lb] [|i] a b; cbn; try (split; [discriminate|intros [? ?]; discriminate]).
  - split; [intros H; inversion H; auto|intros [H1 H2]; inversion H1; inversion H2; reflexivity].
  - apply IH.
Qed.

Lemma In_combine_nth {A B} (la : list A) (lb : list B) a b :
  In (a, b) (combine la lb) -> exists i, nth_error la i = Some a /\ nth_error lb i = Some b.
Proof.
  intros H. apply In_nth_error in H. destruct H as [i H]. exists i. apply nth_error_combine. exact H.
Qed.

(** ** [sorted_strict], [check_permids], [rank] *)

Lemma sorted_strict_incr l : sorted_strict l = true -> incr l.
Proof.
  induction l as [|a l IH]; intros H; [intros [|i] j x y Hx; discriminate|].
  assert (Hhd : forall j b, nth_error l j = Some b -> a < b /\ sorted_strict l = true).
  { destruct l as [|b l]; [intros [|j] ? ?; discriminate|].
    cbn in H. apply andb_prop in H. destruct H as [Hab Hs]. apply N.ltb_lt in Hab.
    specialize (IH Hs). intros [|j] c Hc; cbn in Hc.
    - inversion Hc; subst. auto.
    - split; [|exact Hs]. specialize (IH O (S j) b c eq_refl Hc ltac:(lia)). lia. }
  intros [|i] [|j] x y Hx Hy Hij; try lia; cbn in Hx, Hy.
  - inversion Hx; subst. apply (Hhd j y Hy).
  - destruct (Hhd j y Hy) as [_ Hs]. exact (IH Hs i j x y Hx Hy ltac:(lia)).
Qed.

Lemma incr_le_last l : incr l -> forall i a, nth_error l i = Some a -> a <= last l 0.
Proof.
  intros Hi i a Ha.
  assert (Hl : l <> []) by (destruct l; [destruct i; discriminate|discriminate]).
  destruct (exists_last Hl) as (l' & z & ->). rewrite last_last.
  destruct (Nat.eq_dec i (length l')) as [->|Hne].
  - rewrite nth_error_app2, Nat.sub_diag in Ha by lia. inversion Ha. lia.
  - assert (i < length l')%nat.
    { assert (i < length (l' ++ [z]))%nat by (apply nth_error_Some; congruence).
      rewrite app_length in *. cbn in *. lia. }
    assert (Hz : nth_error (l' ++ [z]) (length l') = Some z) by (rewrite nth_error_app2, Nat.sub_diag by lia; reflexivity).
    specialize (Hi i (length l') a z Ha Hz ltac:(lia)). lia.
Qed.

Lemma incr_NoDup l : incr l -> NoDup l.
Proof.
  intros Hi. apply NoDup_nth_error. intros i j Hlt E.
  destruct (nth_error l i) as [a|] eqn:Ea; [|apply nth_error_None in Ea; lia].
  symmetry in E. destruct (Nat.lt_trichotomy i j) as [H|[H|H]]; [|exact H|].
  - specialize (Hi i j a a Ea E H). lia.
  - specialize (Hi j i a a E Ea H). lia.
Qed.

Lemma check_permids_spec nvars : forall p seen,
  hni_and (check_permids nvars p seen)
          (fun _ => Forall (fun l => l < nvars) p /\ NoDup p /\ forall x, In x p -> ~ In x seen).
Proof.
  induction p as [|l p IH]; intros seen; cbn [check_permids].
  - apply hni_ok. splits; [constructor|constructor|intros x []].
  - destruct (N.leb_spec nvars l); [apply hni_err; discriminate|].
    destruct (existsb (N.eqb l) seen) eqn:E; [apply hni_err; discriminate|].
    eapply hni_impl; [|apply IH]. intros [] _ (F & ND & Dis).
    assert (Hl : ~ In l seen).
    { intros Hin. assert (existsb (N.eqb l) seen = true); [|congruence].
      apply existsb_exists. exists l. split; [exact Hin|apply N.eqb_refl]. }
    splits.
    + constructor; assumption.
    + constructor; [|exact ND]. intros Hin. apply (Dis l Hin). left; reflexivity.
    + intros x [->|Hx]; [exact Hl|]. intros Hs. apply (Dis x Hx). right; exact Hs.
Qed.

Definition rank_nat (p : list N) (l : N) : nat := length (filter (fun x => x <? l) p).

Lemma rank_to_nat p l : N.to_nat (rank p l) = rank_nat p l.
Proof. unfold rank, len, rank_nat. apply Nat2N.id. Qed.

Lemma rank_nat_mono p a b : a <= b -> (rank_nat p a <= rank_nat p b)%nat.
Proof.
  unfold rank_nat. intros Hab. induction p as [|x p IH]; cbn; [lia|].
  destruct (N.ltb_spec x a), (N.ltb_spec x b); cbn; lia.
Qed.

(** the rank is strictly monotone on the levels that occur *)
Lemma rank_nat_lt p a b : a < b -> In a p -> (rank_nat p a < rank_nat p b)%nat.
Proof.
  intros Hab. induction p as [|x p IH]; intros Hin; [destruct Hin|].
  pose proof (rank_nat_mono p a b ltac:(lia)) as Hm. unfold rank_nat in *. cbn.
  destruct Hin as [->|Hin].
  - destruct (N.ltb_spec a a); [lia|]. destruct (N.ltb_spec a b); [|lia]. cbn. lia.
  - specialize (IH Hin). destruct (N.ltb_spec x a), (N.ltb_spec x b); cbn; lia.
Qed.

Lemma rank_nat_bound p a : In a p -> (rank_nat p a < length p)%nat.
Proof.
  unfold rank_nat. induction p as [|x p IH]; intros Hin; [destruct Hin|]. cbn.
  pose proof (count_le (fun y => y <? a) p) as Hc. unfold count in Hc.
  destruct Hin as [->|Hin].
  - destruct (N.ltb_spec a a); [lia|]. lia.
  - specialize (IH Hin). destruct (x <? a); cbn; lia.
Qed.

Lemma rank_nat_inj p a b : In a p -> In b p -> rank_nat p a = rank_nat p b -> a = b.
Proof.
  intros Ha Hb E. destruct (N.lt_trichotomy a b) as [H|[H|H]]; [|exact H|].
  - pose proof (rank_nat_lt p a b H Ha). lia.
  - pose proof (rank_nat_lt p b a H Hb). lia.
Qed.

(** [support_var_order]: every pair (variable, level) ends up at the rank of its level *)
Lemma fill_order_spec p : forall pairs acc,
  NoDup (map snd pairs) -> (forall v l, In (v, l) pairs -> In l p) -> length acc = length p ->
  exists order, fill_order pairs p acc = HOk order /\ length order = length acc /\
    (forall v l, In (v, l) pairs -> nth_error order (rank_nat p l) = Some v) /\
    (forall m, (forall v l, In (v, l) pairs -> rank_nat p l <> m) -> nth_error order m = nth_error acc m).
Proof.
  induction pairs as [|[v l] pairs IH]; intros acc ND Hin Hlen.
  - exists acc. splits; [intros v l []|reflexivity].
  - cbn [fill_order]. rewrite rank_to_nat. cbn in ND. inversion ND as [|? ? Hnot ND']; subst.
    assert (Hl : In l p) by (apply (Hin v l); left; reflexivity).
    destruct (set_nth_some (rank_nat p l) v acc) as [acc' Hs]; [rewrite Hlen; apply rank_nat_bound; exact Hl|].
    rewrite Hs. destruct (set_nth_spec _ _ _ _ Hs) as (L & N1 & _ & O).
    destruct (IH acc' ND' (fun v' l' H => Hin v' l' (or_intror H)) ltac:(lia)) as (order & Hf & Lo & Hp & Hk).
    exists order. splits; [exact Hf|lia| |].
    + intros v' l' [E|H]; [inversion E; subst|apply Hp; exact H].
      rewrite Hk; [exact N1|]. intros v2 l2 H2 Er.
      assert (l2 = l') by (eapply rank_nat_inj; [|exact Hl|exact Er]; eapply Hin; right; exact H2). subst l2.
      apply Hnot. apply in_map_iff. exists (v2, l'). split; [reflexivity|exact H2].
    + intros m Hm. rewrite Hk.
      * apply O. intros E. apply (Hm v l); [left; reflexivity|congruence].
      * intros v2 l2 H2. apply (Hm v2 l2). right; exact H2.
Qed.

(** ** the variable name block *)

Lemma nth_name_ok l i : (N.to_nat i < length l)%nat -> exists x, nth_name l i = HOk x /\ nth_error l (N.to_nat i) = Some x.
Proof.
  intros H. unfold nth_name. destruct (nth_error l (N.to_nat i)) as [x|] eqn:E; [eauto|].
  apply nth_error_None in E. lia.
Qed.

Lemma place_names_spec : forall pairs v,
  (forall n t, In (n, t) pairs -> (N.to_nat t < length v)%nat) ->
  exists v', place_names pairs v = HOk v' /\ length v' = length v.
Proof.
  induction pairs as [|[n t] pairs IH]; intros v Hr; cbn; [eauto|].
  destruct (set_nth_some (N.to_nat t) n v) as [v1 Hs]; [apply (Hr n t); left; reflexivity|].
  rewrite Hs. destruct (set_nth_spec _ _ _ _ Hs) as (L & _).
  destruct (IH v1) as (v' & H & L'); [intros n' t' H; rewrite L; apply (Hr n' t'); right; exact H|].
  exists v'. split; [exact H|lia].
Qed.

Definition emp (s : list byte) : bool := is_nil s.
Definition nemp (s : list byte) : bool := negb (is_nil s).

(** [take_names]: as many names leave [ordered] as empty places of [varnames] are filled *)
Lemma take_names_spec nv : forall pairs v o,
  length v = nv -> length o = nv ->
  (forall id pm, In (id, pm) pairs -> (N.to_nat id < nv)%nat /\ (N.to_nat pm < nv)%nat) ->
  NoDup (map fst pairs) ->
  (forall id pm, In (id, pm) pairs -> nth_error v (N.to_nat id) = Some []) ->
  (count emp v <= count nemp o)%nat ->
  exists v' o', take_names pairs v o = HOk (v', o') /\ length v' = nv /\ length o' = nv /\
                (count emp v' <= count nemp o')%nat.
Proof.
  induction pairs as [|[id pm] pairs IH]; intros v o Lv Lo Hr ND Hemp Hc; cbn [take_names].
  - exists v, o. splits; assumption.
  - destruct (Hr id pm (or_introl eq_refl)) as [Hid Hpm].
    destruct (nth_name_ok o pm ltac:(lia)) as (name & Hn & Hno). rewrite Hn. cbn [hbind].
    destruct (set_nth_some (N.to_nat pm) [] o ltac:(lia)) as [o1 Ho]. rewrite Ho.
    destruct (set_nth_some (N.to_nat id) name v ltac:(lia)) as [v1 Hv]. rewrite Hv.
    destruct (set_nth_spec _ _ _ _ Ho) as (Lo1 & _ & _ & _).
    destruct (set_nth_spec _ _ _ _ Hv) as (Lv1 & _ & _ & Ov).
    pose proof (count_set_nth nemp _ _ _ _ _ Ho Hno) as Co.
    pose proof (count_set_nth emp _ _ _ _ _ Hv (Hemp id pm (or_introl eq_refl))) as Cv.
    cbn in ND. inversion ND as [|? ? Hnot ND']; subst.
    apply IH; try lia.
    + intros id' pm' H. apply (Hr id' pm'). right; exact H.
    + exact ND'.
    + intros id' pm' H. rewrite Ov; [apply (Hemp id' pm'); right; exact H|].
      intros E. apply Hnot. apply in_map_iff. exists (id', pm'). split; [cbn; lia|exact H].
    + unfold emp, nemp in *. cbn in Co, Cv. destruct name; cbn in *; lia.
Qed.

Lemma fill_names_spec : forall v pool, (count emp v <= length pool)%nat ->
  exists r, fill_names v pool = HOk r /\ length r = length v.
Proof.
  unfold count. induction v as [|n v IH]; intros pool H; cbn; [eauto|].
  destruct n as [|c n].
  - cbn in H. destruct pool as [|q pool]; [cbn in H; lia|].
    destruct (IH pool ltac:(cbn in H; lia)) as (r & -> & L). cbn. eexists; split; [reflexivity|cbn; lia].
  - cbn in H. destruct (IH pool H) as (r & -> & L). cbn. eexists; split; [reflexivity|cbn; lia].
Qed.

Lemma check_ordered_no_int : forall pairs v o,
  (forall id pm, In (id, pm) pairs -> (N.to_nat id < length v)%nat /\ (N.to_nat pm < length o)%nat) ->
  no_int (check_ordered pairs v o).
Proof.
  induction pairs as [|[id pm] pairs IH]; intros v o Hr; cbn; [discriminate|].
  destruct (Hr id pm (or_introl eq_refl)) as [H1 H2].
  destruct (nth_name_ok v id H1) as (a & -> & _). destruct (nth_name_ok o pm H2) as (b & -> & _). cbn.
  destruct (bytes_eqb a b); [|apply no_int_err; discriminate].
  apply IH. intros id' pm' H. apply Hr. right; exact H.
Qed.

Lemma check_supp_no_int : forall pairs v,
  (forall n id, In (n, id) pairs -> (N.to_nat id < length v)%nat) -> no_int (check_supp pairs v).
Proof.
  induction pairs as [|[n id] pairs IH]; intros v Hr; cbn; [discriminate|].
  destruct (nth_name_ok v id (Hr n id (or_introl eq_refl))) as (a & -> & _). cbn.
  destruct (bytes_eqb n a); [|apply no_int_err; discriminate].
  apply IH. intros n' id' H. apply (Hr n' id'). right; exact H.
Qed.

Lemma count_repeat_emp n : count emp (repeat [] n) = n.
Proof. unfold count. induction n; cbn; [reflexivity|lia]. Qed.

(** the block neither panics nor returns a list of the wrong length *)
Lemma var_names_block_spec nvars ids permids varnames suppnames ordered :
  incr ids -> Forall (fun v => v < nvars) ids -> Forall (fun l => l < nvars) permids ->
  nonempty_names ordered ->
  (ordered = [] \/ len ordered = nvars) ->
  hni_and (var_names_block nvars ids permids varnames suppnames ordered)
          (fun r => r = [] \/ len r = nvars).
Proof.
  intros Hinc Hids Hperm Hne Hol. unfold var_names_block, len in *.
  assert (Hidr : forall (A : Type) (l : list A) (n : A) id, In (n, id) (combine l ids) -> (N.to_nat id < N.to_nat nvars)%nat).
  { intros A l n id H. apply in_combine_r in H. rewrite Forall_forall in Hids. specialize (Hids _ H). lia. }
  assert (Hpr : forall id pm, In (id, pm) (combine ids permids) ->
                (N.to_nat id < N.to_nat nvars)%nat /\ (N.to_nat pm < N.to_nat nvars)%nat).
  { intros id pm H. pose proof (in_combine_l _ _ _ _ H) as H1. pose proof (in_combine_r _ _ _ _ H) as H2.
    rewrite Forall_forall in Hids, Hperm. specialize (Hids _ H1). specialize (Hperm _ H2). lia. }
  destruct varnames as [|vn varnames]; cbn [is_nil].
  - destruct ordered as [|on ordered]; cbn [is_nil].
    + destruct suppnames as [|sn suppnames]; cbn [is_nil]; [apply hni_ok; auto|].
      destruct (place_names_spec (combine (sn :: suppnames) ids) (repeat [] (N.to_nat nvars))) as (v' & Hp & L).
      { intros n t H. rewrite repeat_length. eapply Hidr. exact H. }
      rewrite Hp. apply hni_ok. right. rewrite L, repeat_length. lia.
    + destruct Hol as [Hol|Hol]; [discriminate|].
      set (o := on :: ordered) in *.
      destruct (take_names_spec (N.to_nat nvars) (combine ids permids) (repeat [] (N.to_nat nvars)) o) as (v1 & o1 & Ht & L1 & L2 & C).
      * apply repeat_length.
      * lia.
      * exact Hpr.
      * assert (Hm : map fst (combine ids permids) = firstn (length permids) ids).
        { clear. revert permids. induction ids as [|a ids IH]; intros [|b p]; cbn; try reflexivity. f_equal. apply IH. }
        rewrite Hm. pose proof (incr_NoDup _ Hinc) as ND. rewrite <- (firstn_skipn (length permids) ids) in ND.
        apply NoDup_app_l in ND. exact ND.
      * intros id pm H. apply nth_error_repeat. apply (Hpr id pm H).
      * rewrite count_repeat_emp. unfold nemp. rewrite count_all; [lia|].
        eapply Forall_impl; [|exact Hne]. intros [|c s] H; [contradiction|reflexivity].
      * rewrite Ht. cbn [hbind].
        destruct (fill_names_spec v1 (filter (fun s => negb (is_nil s)) o1) C) as (r & Hf & Lr).
        rewrite Hf. cbn [hbind]. eapply hni_bind; [|intros [] _ _; apply hni_ok; right; lia].
        apply hni_ni, check_supp_no_int. intros n id H. rewrite Lr, L1. eapply Hidr. exact H.
  - set (v := vn :: varnames) in *.
    apply hni_guard; [discriminate|]. intros Hv. apply N.eqb_eq in Hv.
    eapply hni_bind; [apply hni_ni|intros [] _ _; eapply hni_bind; [apply hni_ni|intros [] _ _; apply hni_ok; right; exact Hv]].
    + destruct (is_nil ordered) eqn:En; [discriminate|].
      apply check_ordered_no_int. intros id pm H. destruct (Hpr id pm H).
      destruct Hol as [->|Hol]; [discriminate|]. lia.
    + apply check_supp_no_int. intros n id H. pose proof (Hidr _ _ _ _ H). lia.
Qed.

Lemma check_roots_spec nnodes : forall l,
  hni_and (check_roots nnodes l) (fun _ => Forall (fun r => r <> 0%Z /\ Z.abs_N r <= nnodes) l).
Proof.
  induction l as [|r l IH]; cbn [check_roots]; [apply hni_ok; constructor|].
  destruct (Z.eqb_spec r 0); [apply hni_err; discriminate|].
  destruct (N.ltb_spec nnodes (Z.abs_N r)); [apply hni_err; discriminate|].
  eapply hni_impl; [|exact IH]. intros [] _ Hl. constructor; [split; assumption|exact Hl].
Qed.

(** ** well-formed headers *)

Record header_wf (h : header) : Prop := {
  hw_nnodes : h_nnodes h < usize_limit;
  hw_nvars : h_nvars h < u32_limit;
  hw_ids_incr : incr (h_ids h);                                   (* strictly ascending *)
  hw_ids_range : Forall (fun v => v < h_nvars h) (h_ids h);
  hw_perm_len : length (h_permids h) = length (h_ids h);
  hw_perm_range : Forall (fun l => l < h_nvars h) (h_permids h);
  hw_perm_nodup : NoDup (h_permids h);
  hw_aux : h_auxids h = [] \/ length (h_auxids h) = length (h_ids h);
  hw_order_len : length (h_order h) = length (h_ids h);
  (* support_var_order: the support variable with the k-th smallest level is at position k *)
  hw_order : forall i v l, nth_error (h_ids h) i = Some v -> nth_error (h_permids h) i = Some l ->
             nth_error (h_order h) (rank_nat (h_permids h) l) = Some v;
  hw_varnames : h_varnames h = [] \/ len (h_varnames h) = h_nvars h;
  hw_roots : Forall (fun r => r <> 0%Z /\ Z.abs_N r <= h_nnodes h /\ Z.abs_N r <= isize_max) (h_rootids h);
  hw_rootnames : h_rootnames h = [] \/ length (h_rootnames h) = length (h_rootids h);
  hw_rootnames_ne : nonempty_names (h_rootnames h)
}.

Lemma len_eq {A B} (la : list A) (lb : list B) n : len la = n -> len lb = n -> length la = length lb.
Proof. unfold len. lia. Qed.

(** the validation part: no panic, and acceptance implies well-formedness *)
Lemma validate_spec st : state_ok st -> hni_and (validate st) header_wf.
Proof.
  intros Hst. unfold validate.
  apply hni_guard; [discriminate|]. intros G1. apply N.leb_le in G1.
  apply hni_guard; [discriminate|]. intros G2. apply N.eqb_eq in G2.
  apply hni_guard; [discriminate|]. intros G3. apply N.eqb_eq in G3.
  apply hni_guard; [discriminate|]. intros G4.
  apply hni_guard; [discriminate|]. intros G5. apply sorted_strict_incr in G5.
  apply hni_guard; [discriminate|]. intros G6.
  eapply hni_bind; [apply check_permids_spec|]. intros [] _ (Hpr & Hpnd & _).
  assert (Hlen : length (s_ids st) = length (s_permids st)) by (eapply len_eq; eassumption).
  assert (Hir : Forall (fun v => v < s_nvars st) (s_ids st)).
  { apply Forall_forall. intros x Hx. apply In_nth_error in Hx. destruct Hx as [i Hi].
    pose proof (incr_le_last _ G5 _ _ Hi). destruct (s_ids st) as [|a l] eqn:El; [destruct i; discriminate|].
    cbn [is_nil orb] in G6. apply N.ltb_lt in G6. lia. }
  (* support_var_order *)
  destruct (fill_order_spec (s_permids st) (combine (s_ids st) (s_permids st)) (repeat 0 (N.to_nat (s_nsupp st))))
    as (order & Hfo & Lo & Ho & _).
  { assert (Hm : map snd (combine (s_ids st) (s_permids st)) = s_permids st).
    { revert Hlen. generalize (s_ids st) (s_permids st). induction l as [|a l IH]; intros [|b p] H; cbn in *; try lia; [reflexivity|].
      f_equal. apply IH. lia. }
    rewrite Hm. exact Hpnd. }
  { intros v l H. eapply in_combine_r. exact H. }
  { rewrite repeat_length. unfold len in G3. lia. }
  rewrite Hfo. cbn [hbind].
  apply hni_guard; [discriminate|]. intros G7.
  apply hni_guard; [discriminate|]. intros G8.
  assert (Hol : s_ordered st = [] \/ len (s_ordered st) = s_nvars st).
  { destruct (s_ordered st); [left; reflexivity|right]. cbn [is_nil orb] in G7. apply N.eqb_eq in G7. exact G7. }
  eapply hni_bind;
    [exact (var_names_block_spec (s_nvars st) (s_ids st) (s_permids st) (s_varnames st) (s_suppnames st)
              (s_ordered st) G5 Hir Hpr (so_ordered _ Hst) Hol)|].
  intros varnames _ Hvl.
  apply hni_guard; [discriminate|]. intros G9. apply N.eqb_eq in G9.
  eapply hni_bind; [apply check_roots_spec|]. intros [] _ Hr.
  apply hni_guard; [discriminate|]. intros G10.
  apply hni_ok. split; cbn.
  - apply Hst.
  - apply Hst.
  - exact G5.
  - exact Hir.
  - lia.
  - exact Hpr.
  - exact Hpnd.
  - destruct (s_auxids st); [left; reflexivity|right]. cbn [is_nil orb] in G4. apply N.eqb_eq in G4.
    eapply len_eq; eassumption.
  - rewrite Lo, repeat_length. unfold len in G2. lia.
  - intros i v l Hv Hl. apply Ho. apply nth_error_In with (n := i). apply nth_error_combine. auto.
  - exact Hvl.
  - pose proof (so_rootids _ Hst) as Hb.
    rewrite Forall_forall in *. intros r Hin. destruct (Hr r Hin). splits; auto.
  - destruct (s_rootnames st); [left; reflexivity|right]. cbn [is_nil orb] in G10. apply N.eqb_eq in G10.
    eapply len_eq; eassumption.
  - apply Hst.
Qed.

(** ** the loader as a whole *)

Lemma load_header_spec inp :
  hni_and (load_header inp) (fun r => header_wf (fst r) /\ exists pre, inp = pre ++ snd r /\ pre <> []).
Proof.
  unfold load_header.
  eapply hni_bind; [exact (header_loop_spec (S (length inp)) init_state inp ltac:(lia) init_state_ok)|].
  intros [st rest] _ [Hok Hsuf].
  eapply hni_bind; [exact (validate_spec st Hok)|]. intros h _ Hwf. apply hni_ok. exact (conj Hwf Hsuf).
Qed.

(** no panic: the loader never reaches an out-of-bounds index, an [unwrap] of [None], or the
    end of its fuel *)
Theorem load_header_no_internal inp : load_header inp <> HErr HInternal.
Proof. apply (load_header_spec inp). Qed.

(** SAFETY OF ACCEPTANCE of the header: whatever byte string is accepted, the header is
    well-formed and the remaining input is a proper suffix *)
Theorem load_header_wf inp h rest : load_header inp = HOk (h, rest) ->
  header_wf h /\ exists pre, inp = pre ++ rest /\ pre <> [].
Proof. intros H. exact (proj2 (load_header_spec inp) _ H). Qed.

(** the fuel of [load_header] is sufficient: any larger fuel gives the same loop result *)
Theorem load_header_fuel inp f : (length inp < f)%nat ->
  header_loop f init_state inp = header_loop (S (length inp)) init_state inp.
Proof. intros H. apply header_loop_fuel; lia. Qed.

(** [support_var_order] lists the support variables by ascending level *)
Theorem header_order_by_level h : header_wf h ->
  forall i j v w l m, nth_error (h_ids h) i = Some v -> nth_error (h_permids h) i = Some l ->
    nth_error (h_ids h) j = Some w -> nth_error (h_permids h) j = Some m -> l < m ->
    exists p q, (p < q)%nat /\ nth_error (h_order h) p = Some v /\ nth_error (h_order h) q = Some w.
Proof.
  intros Hwf i j v w l m Hv Hl Hw Hm Hlt.
  exists (rank_nat (h_permids h) l), (rank_nat (h_permids h) m). splits.
  - apply rank_nat_lt; [exact Hlt|]. eapply nth_error_In. exact Hl.
  - eapply hw_order; eassumption.
  - eapply hw_order; eassumption.
Qed.
