(** * C15 (package C15h): the header loader reads back the exporter's header

    [load_header (print_header x ++ rest) = HOk (header_of x, rest)] for every well-formed
    exporter-side header [x] ([xwf]), and the whole-file round trips that compose it with the
    node-section theorems of IO/DddmpProofs.v / IO/DddmpAsciiProofs.v. *)
From Coq Require Import String Ascii.
From Coq Require Import List NArith ZArith Bool Arith Lia Permutation.
From OxiVerif Require Import IO.Dddmp IO.DddmpProofs IO.DddmpAsciiProofs IO.DddmpFile IO.DddmpFileProofs.
Import ListNotations.
Open Scope N_scope.


(** ** lines *)

(** neither a line feed nor a carriage return *)
Definition okb (b : byte) : Prop := b <> 10 /\ b <> 13.
Definition plain (l : list byte) : Prop := l <> [] /\ Forall okb l.
Definition nosp (s : list byte) : Prop := Forall (fun b => is_sp b = false) s.

Lemma read_line_plain l rest : plain l -> read_line (l ++ 10 :: rest) = Ok (l, rest).
Proof.
  intros [Hne Hok]. destruct (exists_last Hne) as (body & c & ->).
  apply read_line_nl.
  - eapply Forall_impl; [|exact Hok]. intros b [H _]. exact H.
  - apply Forall_app in Hok. destruct Hok as [_ Hc]. inversion Hc; subst. apply H1.
Qed.

Lemma okb_digit b : is_digit b = true -> okb b.
Proof. intros H. apply digit_not_sp in H. split; tauto. Qed.

Lemma okb_clean b : is_space_or_control b = false -> okb b.
Proof.
  unfold is_space_or_control, is_ascii_control. intros H.
  apply orb_false_elim in H. destruct H as [H _]. apply orb_false_elim in H. destruct H as [H _].
  apply N.ltb_ge in H. split; lia.
Qed.

Lemma okb_no_control b : is_ascii_control b = false -> okb b.
Proof.
  unfold is_ascii_control. intros H. apply orb_false_elim in H. destruct H as [H _].
  apply N.ltb_ge in H. split; lia.
Qed.

Lemma Forall_okb_dec n : Forall okb (dec n).
Proof. eapply Forall_impl; [|apply dec_digits]. apply okb_digit. Qed.

Lemma Forall_okb_dec_z z : Forall okb (dec_z z).
Proof.
  unfold dec_z. destruct (z <? 0)%Z; [constructor; [split; discriminate|]|]; apply Forall_okb_dec.
Qed.

Lemma sp_list_cons {A} (f : A -> list byte) a l : sp_list f (a :: l) = 32 :: f a ++ sp_list f l.
Proof. reflexivity. Qed.
Lemma sp_list_nil {A} (f : A -> list byte) : sp_list f [] = [].
Proof. reflexivity. Qed.

Lemma Forall_okb_sp_list {A} (f : A -> list byte) l :
  Forall (fun x => Forall okb (f x)) l -> Forall okb (sp_list f l).
Proof.
  induction 1 as [|x l Hx _ IH]; [constructor|]. rewrite sp_list_cons.
  constructor; [split; discriminate|]. apply Forall_app. split; assumption.
Qed.

(** *** [trim] *)

Lemma trim_nil : trim [] = [].
Proof. reflexivity. Qed.

Lemma trim_id v :
  (exists c r, v = c :: r /\ is_sp c = false) -> (exists r c, v = r ++ [c] /\ is_sp c = false) -> trim v = v.
Proof.
  intros (c & r & -> & Hc) (r' & c' & E & Hc'). unfold trim.
  cbn [trim_start]. rewrite Hc. rewrite E, rev_app_distr. cbn [rev app trim_end_rev]. rewrite Hc'.
  change (c' :: rev r') with (rev [c'] ++ rev r'). rewrite <- rev_app_distr, rev_involutive. reflexivity.
Qed.

(** a token followed by " tok tok ..." begins and ends with a non-blank *)
Lemma tokens_ends {A} (f : A -> list byte) : forall l t, token t -> Forall (fun x => token (f x)) l ->
  exists r c, t ++ sp_list f l = r ++ [c] /\ is_sp c = false.
Proof.
  induction l as [|a l IH]; intros t [Hne Hns] Hl; [rewrite sp_list_nil|rewrite sp_list_cons].
  - destruct (exists_last Hne) as (r & c & ->). exists r, c. rewrite app_nil_r. split; [reflexivity|].
    apply Forall_app in Hns. destruct Hns as [_ Hc]. inversion Hc; assumption.
  - inversion Hl; subst. destruct (IH (f a) H1 H2) as (r & c & E & Hc).
    exists (t ++ 32 :: r), c. split; [|exact Hc]. rewrite E. rewrite <- app_assoc. reflexivity.
Qed.

Lemma trim_tokens {A} (f : A -> list byte) l t : token t -> Forall (fun x => token (f x)) l ->
  trim (t ++ sp_list f l) = t ++ sp_list f l.
Proof.
  intros Ht Hl. apply trim_id; [|apply tokens_ends; assumption].
  destruct Ht as [Hne Hns]. destruct t as [|c r]; [contradiction|]. inversion Hns; subst. cbn. eauto.
Qed.

(** *** string lists *)

Lemma str_list_go_tok : forall t tl cur, nosp t -> str_list_go (t ++ tl) cur = str_list_go tl (rev t ++ cur).
Proof.
  induction t as [|c t IH]; intros tl cur H; [reflexivity|]. inversion H; subst.
  cbn [app str_list_go]. rewrite H2, IH by assumption. cbn [rev]. rewrite <- app_assoc. reflexivity.
Qed.

Lemma str_list_go_tokens : forall l t, token t -> Forall token l ->
  str_list_go (t ++ sp_list ident l) [] = t :: l.
Proof.
  induction l as [|a l IH]; intros t [Hne Hns] Hl; [rewrite sp_list_nil|rewrite sp_list_cons].
  - rewrite str_list_go_tok by exact Hns. rewrite !app_nil_r. cbn [str_list_go].
    destruct (rev t) eqn:E; [apply (f_equal (@rev byte)) in E; rewrite rev_involutive in E; contradiction|].
    rewrite <- E, rev_involutive. reflexivity.
  - inversion Hl; subst. rewrite str_list_go_tok by exact Hns. rewrite app_nil_r. cbn [str_list_go].
    change (is_sp 32) with true. cbv iota.
    destruct (rev t) eqn:E; [apply (f_equal (@rev byte)) in E; rewrite rev_involutive in E; contradiction|].
    rewrite <- E, rev_involutive. f_equal. apply IH; assumption.
Qed.

(** names as the exporter writes them: non-empty, no blanks or control characters, valid UTF-8 *)
Definition good_name (n : list byte) : Prop := n <> [] /\ clean n /\ utf8_lossy n = n.

Lemma clean_nosp n : clean n -> nosp n.
Proof.
  apply Forall_impl. intros b H. unfold is_space_or_control in H. apply orb_false_elim in H.
  destruct H as [Hc Hs]. unfold is_ascii_control in Hc. apply orb_false_elim in Hc. destruct Hc as [Hc _].
  apply N.ltb_ge in Hc. apply N.eqb_neq in Hs. unfold is_sp.
  destruct (N.eqb_spec b 32); [contradiction|]. destruct (N.eqb_spec b 9); [lia|]. reflexivity.
Qed.

Lemma good_name_token n : good_name n -> token n.
Proof. intros (H1 & H2 & _). split; [exact H1|apply clean_nosp; exact H2]. Qed.

Lemma good_name_okb n : good_name n -> Forall okb n.
Proof. intros (_ & H & _). eapply Forall_impl; [|exact H]. apply okb_clean. Qed.

Lemma parse_str_list_names l : Forall good_name l ->
  parse_str_list (trim (match l with [] => [] | t :: r => t ++ sp_list ident r end)) = l.
Proof.
  intros H. destruct l as [|t r]; [reflexivity|]. inversion H; subst.
  assert (Ht : token t) by (apply good_name_token; assumption).
  assert (Hr : Forall token r) by (eapply Forall_impl; [|eassumption]; apply good_name_token).
  rewrite trim_tokens by assumption. unfold parse_str_list. rewrite str_list_go_tokens by assumption.
  apply map_id_Forall. eapply Forall_impl; [|exact H]. intros n Hn. apply Hn.
Qed.

(** *** number lists *)

Lemma u32_digits : forall ds i v tl,
  digits_val ds i = Some v -> v < u32_limit -> forall num,
  parse_u32_list_go (ds ++ tl) i num = parse_u32_list_go tl v (match ds with [] => num | _ => true end).
Proof.
  induction ds as [|c ds IH]; intros i v tl Hv Hl num.
  - cbn in Hv. inversion Hv; subst. reflexivity.
  - cbn in Hv. destruct (is_digit c) eqn:E; [|discriminate]. cbn [app parse_u32_list_go]. rewrite E.
    pose proof (digits_val_ge _ _ _ Hv).
    destruct (N.leb_spec u32_limit (i * 10 + (c - 48))); [lia|].
    rewrite (IH _ _ tl Hv Hl). destruct ds; reflexivity.
Qed.

Lemma parse_u32_list_go_dec : forall l a, a < u32_limit -> Forall (fun x => x < u32_limit) l ->
  parse_u32_list_go (dec a ++ sp_list dec l) 0 false = HOk (a :: l).
Proof.
  induction l as [|b l IH]; intros a Ha Hl; [rewrite sp_list_nil|rewrite sp_list_cons].
  - rewrite (u32_digits _ 0 a [] (digits_val_dec a) Ha).
    pose proof (dec_nonempty a). destruct (dec a); [contradiction|]. reflexivity.
  - inversion Hl; subst. rewrite (u32_digits _ 0 a _ (digits_val_dec a) Ha).
    pose proof (dec_nonempty a). destruct (dec a); [contradiction|].
    cbn [parse_u32_list_go]. change (is_digit 32) with false. change (is_sp 32) with true. cbv iota.
    rewrite IH by assumption. reflexivity.
Qed.

Lemma parse_u32_list_dec l : Forall (fun x => x < u32_limit) l ->
  parse_u32_list (trim (match l with [] => [] | a :: r => dec a ++ sp_list dec r end)) = HOk l.
Proof.
  intros H. destruct l as [|a r]; [reflexivity|]. inversion H; subst.
  rewrite trim_tokens; [|apply token_dec|apply Forall_forall; intros; apply token_dec].
  apply parse_u32_list_go_dec; assumption.
Qed.

Lemma token_dec_z z : token (dec_z z).
Proof.
  unfold dec_z. destruct (z <? 0)%Z; [|apply token_dec].
  destruct (token_dec (Z.abs_N z)) as [_ H]. split; [discriminate|constructor; [reflexivity|exact H]].
Qed.

Lemma parse_edge_list_go_dec_z : forall l a acc, Z.abs_N a <= isize_max ->
  Forall (fun z => Z.abs_N z <= isize_max) l ->
  parse_edge_list_go (dec_z a ++ sp_list dec_z l) 0 false false acc = Ok (acc ++ a :: l).
Proof.
  induction l as [|b l IH]; intros a acc Ha Hl; [rewrite sp_list_nil|rewrite sp_list_cons].
  - rewrite app_nil_r. apply pel_dec_z_end. exact Ha.
  - inversion Hl; subst. rewrite pel_dec_z_sp by exact Ha. rewrite IH by assumption.
    rewrite <- app_assoc. reflexivity.
Qed.

Lemma parse_rootids_dec l : Forall (fun z => Z.abs_N z <= isize_max) l ->
  parse_rootids (trim (match l with [] => [] | a :: r => dec_z a ++ sp_list dec_z r end)) = HOk l.
Proof.
  intros H. destruct l as [|a r]; [reflexivity|]. inversion H; subst.
  rewrite trim_tokens; [|apply token_dec_z|apply Forall_forall; intros; apply token_dec_z].
  unfold parse_rootids, parse_edge_list. rewrite parse_edge_list_go_dec_z by assumption. reflexivity.
Qed.

(** *** single numbers *)

Lemma parse_single_go_digits limit : forall ds i v,
  digits_val ds i = Some v -> v < limit -> forall num, (ds <> [] \/ num = true) ->
  parse_single_go limit ds i num = HOk v.
Proof.
  induction ds as [|c ds IH]; intros i v Hv Hl num Hn.
  - cbn in Hv. inversion Hv; subst. destruct Hn as [H| ->]; [contradiction|reflexivity].
  - cbn in Hv. destruct (is_digit c) eqn:E; [|discriminate]. cbn [parse_single_go]. rewrite E.
    pose proof (digits_val_ge _ _ _ Hv).
    destruct (N.leb_spec limit (i * 10 + (c - 48))); [lia|].
    apply IH; [exact Hv|exact Hl|right; reflexivity].
Qed.

Lemma trim_dec n : trim (dec n) = dec n.
Proof.
  rewrite <- (app_nil_r (dec n)). change [] with (sp_list dec []).
  apply trim_tokens; [apply token_dec|constructor].
Qed.

Lemma parse_single_dec limit n : n < limit -> parse_single_go limit (trim (dec n)) 0 false = HOk n.
Proof.
  intros H. rewrite trim_dec. apply parse_single_go_digits; [apply digits_val_dec|exact H|left; apply dec_nonempty].
Qed.

(** ** [parse_entry] on the lines of [print_header] *)

Lemma nosp_bs_key (k : list byte) : forallb (fun b => negb (is_sp b)) k = true -> nosp k.
Proof.
  intros H. apply Forall_forall. intros b Hb. rewrite forallb_forall in H. specialize (H b Hb).
  destruct (is_sp b); [discriminate|reflexivity].
Qed.

Ltac key_line := unfold parse_entry; rewrite split_sp_token by (apply nosp_bs_key; reflexivity); reflexivity.

Lemma pe_dd v : parse_entry (bs ".dd" ++ 32 :: v) = HOk (EDd (utf8_lossy (trim v))).
Proof. key_line. Qed.
Lemma pe_rootids v : parse_entry (bs ".rootids" ++ 32 :: v) = hmap ERootids (parse_rootids (trim v)).
Proof. key_line. Qed.

(** a key followed by a blank-separated list: [key] alone for the empty list *)
Lemma key_sp_list {A} (key : list byte) (f : A -> list byte) l :
  key ++ sp_list f l = match l with [] => key | a :: r => key ++ 32 :: (f a ++ sp_list f r) end.
Proof. destruct l; [apply app_nil_r|reflexivity]. Qed.

Lemma pe_names_list (key : list byte) (mk : list (list byte) -> entry) l :
  (forall v, parse_entry (key ++ 32 :: v) = HOk (mk (parse_str_list (trim v)))) ->
  parse_entry key = HOk (mk []) ->
  Forall good_name l -> parse_entry (key ++ sp_list ident l) = HOk (mk l).
Proof.
  intros Hk H0 Hl. rewrite key_sp_list. destruct l as [|a r]; [exact H0|].
  rewrite Hk. change (ident a) with a. rewrite (parse_str_list_names (a :: r) Hl). reflexivity.
Qed.

Lemma pe_u32_list (key : list byte) (mk : list N -> entry) l :
  (forall v, parse_entry (key ++ 32 :: v) = hmap mk (parse_u32_list (trim v))) ->
  parse_entry key = HOk (mk []) ->
  Forall (fun x => x < u32_limit) l -> parse_entry (key ++ sp_list dec l) = HOk (mk l).
Proof.
  intros Hk H0 Hl. rewrite key_sp_list. destruct l as [|a r]; [exact H0|].
  rewrite Hk. rewrite (parse_u32_list_dec (a :: r) Hl). reflexivity.
Qed.

Lemma pe_rootids_list l : Forall (fun z => Z.abs_N z <= isize_max) l ->
  parse_entry (bs ".rootids" ++ sp_list dec_z l) = HOk (ERootids l).
Proof.
  intros Hl. rewrite key_sp_list. destruct l as [|a r]; [reflexivity|].
  rewrite pe_rootids. rewrite (parse_rootids_dec (a :: r) Hl). reflexivity.
Qed.

(** ** the lines of [print_header] and the entries they parse to *)

Notation xlines := header_lines.

Definition xentries (x : xheader) : list entry :=
  [EVer; EMode (x_ascii x); EVarinfo VINone] ++
  (if is_nil (x_dd x) then [] else [EDd (utf8_lossy (trim (wdd x)))]) ++
  [ENnodes (x_nnodes x); ENvars (x_nvars x); ENsupp (len (x_supp x))] ++
  (match x_names x with
   | None => []
   | Some names =>
     (if x_ver3 x then [EVarnames names] else []) ++
     [ESuppnames (map (name_of names) (x_ids x)); EOrdered (map (name_of names) (x_l2v x))]
   end) ++
  [EIds (x_ids x); EPermids (x_permids x); ENroots (len (x_rootids x)); ERootids (x_rootids x)] ++
  (match x_rootnames x with None => [] | Some rn => [ERootnames rn] end).

Lemma unlines_app a b : unlines (a ++ b) = unlines a ++ unlines b.
Proof. apply flat_map_app. Qed.

Lemma print_header_lines x : print_header x = unlines (xlines x) ++ bs ".nodes" ++ [10].
Proof. reflexivity. Qed.

(** the well-formedness of the exporter-side header: what [export_common] reads from a manager *)
Record xwf (x : xheader) : Prop := {
  xw_nnodes : x_nnodes x < usize_limit;
  xw_nvars : x_nvars x < u32_limit;
  (* [var_to_level] is injective into [0, nvars) and [level_to_var] is its inverse *)
  xw_levels : Forall (fun p => fst p < x_nvars x) (x_vars x);
  xw_levels_nodup : NoDup (map fst (x_vars x));
  xw_l2v_len : len (x_l2v x) = x_nvars x;
  xw_l2v : forall v l s, nth_error (x_vars x) v = Some (l, s) -> nth_error (x_l2v x) (N.to_nat l) = Some (N.of_nat v);
  (* names as [write_var] prints them *)
  xw_names : match x_names x with None => True | Some ns => len ns = x_nvars x /\ Forall good_name ns end;
  xw_nroots : len (x_rootids x) < usize_limit;
  xw_rootids : Forall (fun r => r <> 0%Z /\ Z.abs_N r <= x_nnodes x /\ Z.abs_N r <= isize_max) (x_rootids x);
  xw_rootnames : match x_rootnames x with
                 | None => True
                 | Some rn => length rn = length (x_rootids x) /\ Forall good_name rn
                 end
}.

(** *** facts about the support lists *)

Lemma supp_from_spec : forall vars v p,
  In p (supp_from v vars) <->
  exists i, nth_error vars i = Some (snd p, true) /\ fst p = v + N.of_nat i.
Proof.
  induction vars as [|[l s] vars IH]; intros v p; cbn [supp_from].
  - split; [intros []|intros (i & H & _); destruct i; discriminate].
  - assert (Hrec : In p (supp_from (v + 1) vars) <->
                   exists i, nth_error ((l, s) :: vars) (S i) = Some (snd p, true) /\ fst p = v + N.of_nat (S i)).
    { rewrite IH. split; intros (i & H & E); exists i; (split; [exact H|lia]). }
    destruct s.
    + split.
      * intros [<-|H]; [exists O; cbn; split; [reflexivity|lia]|].
        apply Hrec in H. destruct H as (i & H & E). exists (S i). auto.
      * intros ([|i] & H & E).
        -- left. cbn in H. inversion H. destruct p; cbn in *. f_equal; lia.
        -- right. apply Hrec. exists i. auto.
    + rewrite Hrec. split.
      * intros (i & H & E). exists (S i). auto.
      * intros ([|i] & H & E); [cbn in H; inversion H|]. exists i. auto.
Qed.

Lemma supp_from_length : forall vars v, (length (supp_from v vars) <= length vars)%nat.
Proof. induction vars as [|[l [|]] vars IH]; intros v; cbn; [lia| |]; specialize (IH (v + 1)); lia. Qed.

Lemma supp_from_sorted : forall vars v,
  sorted_strict (map fst (supp_from v vars)) = true /\ Forall (fun p => v <= fst p) (supp_from v vars).
Proof.
  induction vars as [|[l s] vars IH]; intros v; cbn [supp_from]; [split; [reflexivity|constructor]|].
  destruct (IH (v + 1)) as [Hs Hf].
  assert (Hf' : Forall (fun p => v <= fst p) (supp_from (v + 1) vars)).
  { eapply Forall_impl; [|exact Hf]. cbn. intros; lia. }
  destruct s; [|split; assumption]. split; [|constructor; [cbn; lia|exact Hf']].
  cbn [map fst]. destruct (supp_from (v + 1) vars) as [|q r] eqn:E; [reflexivity|].
  cbn [map sorted_strict] in *. rewrite Hs. inversion Hf; subst.
  destruct (N.ltb_spec v (fst q)); [reflexivity|lia].
Qed.

(** *** every line is plain and parses to its entry *)

Lemma plain_key_app (k v : list byte) : k <> [] -> Forall okb k -> Forall okb v -> plain (k ++ v).
Proof.
  intros Hk Fk Fv. split; [destruct k; [contradiction|discriminate]|]. apply Forall_app. split; assumption.
Qed.

Ltac okb_closed := repeat constructor; discriminate.

Lemma Forall_okb_bs_key (k : list byte) : forallb (fun b => negb ((b =? 10) || (b =? 13))) k = true -> Forall okb k.
Proof.
  intros H. apply Forall_forall. intros b Hb. rewrite forallb_forall in H. specialize (H b Hb).
  destruct (N.eqb_spec b 10); [discriminate|]. destruct (N.eqb_spec b 13); [discriminate|]. split; assumption.
Qed.

Ltac plain_line := apply plain_key_app; [discriminate|apply Forall_okb_bs_key; reflexivity|].

Definition line_entry (l : list byte) (e : entry) : Prop := plain l /\ parse_entry l = HOk e /\ e <> ENodes.

Lemma sp_list_map {A} (f : A -> list byte) l : sp_list f l = sp_list ident (map f l).
Proof. unfold sp_list. induction l as [|a l IH]; cbn; [reflexivity|]. rewrite IH. reflexivity. Qed.

Lemma le_number (key : string) (mk : N -> entry) limit n :
  (forall v, parse_entry (bs key ++ 32 :: v) = hmap mk (parse_single_go limit (trim v) 0 false)) ->
  bs key <> [] -> forallb (fun b => negb ((b =? 10) || (b =? 13))) (bs key) = true ->
  (forall m, mk m <> ENodes) ->
  n < limit -> line_entry ((bs key ++ [32]) ++ dec n) (mk n).
Proof.
  intros Hk Hne Hkb Hmk Hn. split; [|split].
  - rewrite <- app_assoc. apply plain_key_app; [exact Hne|apply Forall_okb_bs_key; exact Hkb|].
    constructor; [split; discriminate|apply Forall_okb_dec].
  - rewrite <- app_assoc. cbn [app]. rewrite Hk, parse_single_dec by exact Hn. reflexivity.
  - apply Hmk.
Qed.

Lemma le_names (key : string) (mk : list (list byte) -> entry) l :
  (forall v, parse_entry (bs key ++ 32 :: v) = HOk (mk (parse_str_list (trim v)))) ->
  parse_entry (bs key) = HOk (mk []) ->
  bs key <> [] -> forallb (fun b => negb ((b =? 10) || (b =? 13))) (bs key) = true ->
  (forall m, mk m <> ENodes) ->
  Forall good_name l -> line_entry (bs key ++ sp_list ident l) (mk l).
Proof.
  intros Hk H0 Hne Hkb Hmk Hl. split; [|split].
  - apply plain_key_app; [exact Hne|apply Forall_okb_bs_key; exact Hkb|].
    apply Forall_okb_sp_list. eapply Forall_impl; [|exact Hl]. apply good_name_okb.
  - apply pe_names_list; assumption.
  - apply Hmk.
Qed.

Lemma le_u32s (key : string) (mk : list N -> entry) l :
  (forall v, parse_entry (bs key ++ 32 :: v) = hmap mk (parse_u32_list (trim v))) ->
  parse_entry (bs key) = HOk (mk []) ->
  bs key <> [] -> forallb (fun b => negb ((b =? 10) || (b =? 13))) (bs key) = true ->
  (forall m, mk m <> ENodes) ->
  Forall (fun x => x < u32_limit) l -> line_entry (bs key ++ sp_list dec l) (mk l).
Proof.
  intros Hk H0 Hne Hkb Hmk Hl. split; [|split].
  - apply plain_key_app; [exact Hne|apply Forall_okb_bs_key; exact Hkb|].
    apply Forall_okb_sp_list. apply Forall_forall. intros; apply Forall_okb_dec.
  - apply pe_u32_list; assumption.
  - apply Hmk.
Qed.

Lemma x_ids_range x : xwf x -> Forall (fun v => v < x_nvars x) (x_ids x).
Proof.
  intros Hx. unfold x_ids. rewrite Forall_map. apply Forall_forall. intros p Hp.
  apply supp_from_spec in Hp. destruct Hp as (i & Hi & E).
  assert (i < length (x_vars x))%nat by (apply nth_error_Some; congruence).
  unfold x_nvars, len. lia.
Qed.

Lemma x_permids_range x : xwf x -> Forall (fun l => l < x_nvars x) (x_permids x).
Proof.
  intros Hx. unfold x_permids. rewrite Forall_map. apply Forall_forall. intros p Hp.
  apply supp_from_spec in Hp. destruct Hp as (i & Hi & E).
  pose proof (xw_levels x Hx) as Hl. rewrite Forall_forall in Hl.
  apply (Hl (snd p, true)). eapply nth_error_In. exact Hi.
Qed.

Lemma Forall_lt_trans (l : list N) a b : a <= b -> Forall (fun v => v < a) l -> Forall (fun v => v < b) l.
Proof. intros H. apply Forall_impl. intros; lia. Qed.

Lemma name_of_good names v : Forall good_name names -> (N.to_nat v < length names)%nat -> good_name (name_of names v).
Proof.
  intros Hn Hv. unfold name_of. rewrite Forall_forall in Hn. apply Hn. apply nth_In. exact Hv.
Qed.

Lemma x_l2v_range x : xwf x -> Forall (fun v => v < x_nvars x) (x_l2v x).
Proof.
  intros Hx. apply Forall_forall. intros v Hv. apply In_nth_error in Hv. destruct Hv as [l Hl].
  (* every level below nvars is the level of some variable (pigeonhole) *)
  assert (Hlt : (l < length (x_l2v x))%nat) by (apply nth_error_Some; congruence).
  pose proof (xw_l2v_len x Hx) as Hlen. unfold x_nvars, len in *.
  set (levels := map fst (x_vars x)).
  assert (Hincl : incl (map N.of_nat (seq 0 (length (x_vars x)))) levels).
  { apply NoDup_length_incl.
    - apply (xw_levels_nodup x Hx).
    - unfold levels. rewrite !map_length, seq_length. lia.
    - intros a Ha. unfold levels in Ha. apply in_map_iff in Ha. destruct Ha as (p & <- & Hp).
      pose proof (xw_levels x Hx) as Hr. rewrite Forall_forall in Hr. specialize (Hr p Hp). unfold x_nvars, len in Hr.
      apply in_map_iff. exists (N.to_nat (fst p)). split; [lia|]. apply in_seq. lia. }
  assert (Hin : In (N.of_nat l) levels).
  { apply Hincl. apply in_map. apply in_seq. lia. }
  unfold levels in Hin. apply in_map_iff in Hin. destruct Hin as ([l' s] & El & Hp). cbn in El. subst l'.
  apply In_nth_error in Hp. destruct Hp as [w Hw].
  pose proof (xw_l2v x Hx w _ _ Hw) as H. rewrite Nat2N.id in H.
  assert (v = N.of_nat w) by congruence. subst v.
  assert (w < length (x_vars x))%nat by (apply nth_error_Some; congruence). lia.
Qed.

Lemma lines_entries x : xwf x -> Forall2 line_entry (xlines x) (xentries x).
Proof.
  intros Hx. unfold xlines, xentries.
  pose proof (x_ids_range x Hx) as Hids. pose proof (x_permids_range x Hx) as Hperm.
  pose proof (xw_nvars x Hx) as Hnv.
  repeat apply Forall2_app.
  - (* .ver .mode .varinfo *)
    unfold vername. constructor; [|constructor; [|constructor; [|constructor]]].
    + destruct (x_ver3 x); repeat constructor; solve [discriminate | apply Forall_okb_bs_key; reflexivity].
    + destruct (x_ascii x); repeat constructor; solve [discriminate | apply Forall_okb_bs_key; reflexivity].
    + repeat constructor; solve [discriminate | apply Forall_okb_bs_key; reflexivity].
  - (* .dd *)
    destruct (x_dd x) as [|c dd] eqn:Edd; cbn [is_nil]; [constructor|]. constructor; [|constructor].
    split; [|split; [|discriminate]].
    + plain_line. unfold wdd, write_replacing_control. cbn [fst]. rewrite Forall_map.
      apply Forall_forall. intros b _. destruct (is_ascii_control b) eqn:E; [split; discriminate|apply okb_no_control; exact E].
    + change (bs ".dd " ++ wdd x) with (bs ".dd" ++ 32 :: wdd x). apply pe_dd.
  - (* numbers *)
    constructor; [|constructor; [|constructor; [|constructor]]].
    + apply (le_number ".nnodes" ENnodes usize_limit); [intros; key_line|discriminate|reflexivity|discriminate|apply Hx].
    + apply (le_number ".nvars" ENvars u32_limit); [intros; key_line|discriminate|reflexivity|discriminate|exact Hnv].
    + apply (le_number ".nsuppvars" ENsupp u32_limit); [intros; key_line|discriminate|reflexivity|discriminate|].
      pose proof (supp_from_length (x_vars x) 0). unfold x_supp, x_nvars in *. unfold len in *. lia.
  - (* names *)
    pose proof (xw_names x Hx) as Hn. destruct (x_names x) as [names|]; [|constructor].
    destruct Hn as [Hlen Hgood]. apply Forall2_app.
    + destruct (x_ver3 x); [|constructor]. constructor; [|constructor].
      apply (le_names ".varnames" EVarnames); [intros; key_line|reflexivity|discriminate|reflexivity|discriminate|exact Hgood].
    + assert (Hnm : forall l, Forall (fun v => v < x_nvars x) l -> Forall good_name (map (name_of names) l)).
      { intros l Hl. rewrite Forall_map. eapply Forall_impl; [|exact Hl]. intros v Hv.
        apply name_of_good; [exact Hgood|]. cbv beta in Hv. unfold len in Hlen. lia. }
      constructor; [|constructor; [|constructor]].
      * rewrite sp_list_map.
        apply (le_names ".suppvarnames" ESuppnames); [intros; key_line|reflexivity|discriminate|reflexivity|discriminate|].
        apply Hnm. exact Hids.
      * rewrite sp_list_map.
        apply (le_names ".orderedvarnames" EOrdered); [intros; key_line|reflexivity|discriminate|reflexivity|discriminate|].
        apply Hnm. apply x_l2v_range. exact Hx.
  - (* .ids .permids .nroots .rootids *)
    constructor; [|constructor; [|constructor; [|constructor; [|constructor]]]].
    + apply (le_u32s ".ids" EIds); [intros; key_line|reflexivity|discriminate|reflexivity|discriminate|].
      eapply Forall_lt_trans; [|exact Hids]. lia.
    + apply (le_u32s ".permids" EPermids); [intros; key_line|reflexivity|discriminate|reflexivity|discriminate|].
      eapply Forall_lt_trans; [|exact Hperm]. lia.
    + apply (le_number ".nroots" ENroots usize_limit); [intros; key_line|discriminate|reflexivity|discriminate|apply Hx].
    + split; [|split; [|discriminate]].
      * plain_line. apply Forall_okb_sp_list. apply Forall_forall. intros; apply Forall_okb_dec_z.
      * apply pe_rootids_list. eapply Forall_impl; [|apply (xw_rootids x Hx)]. cbn. tauto.
  - (* .rootnames *)
    pose proof (xw_rootnames x Hx) as Hr. destruct (x_rootnames x) as [rn|]; [|constructor].
    constructor; [|constructor].
    apply (le_names ".rootnames" ERootnames); [intros; key_line|reflexivity|discriminate|reflexivity|discriminate|apply Hr].
Qed.

(** ** the loop over the lines *)

Definition hl (st : hstate) (inp : list byte) : hres (hstate * list byte) :=
  header_loop (S (length inp)) st inp.

Lemma header_loop_S f st inp :
  header_loop (S f) st inp =
  match read_line inp with
  | Err _ => HErr HEof
  | Ok (line, rest) =>
    e <~ parse_entry line ;;
    match e with
    | ENodes => HOk (st, rest)
    | _ => header_loop f (apply_entry st e) rest
    end
  end.
Proof. reflexivity. Qed.

Lemma hl_step st l e rest : line_entry l e -> hl st (l ++ 10 :: rest) = hl (apply_entry st e) rest.
Proof.
  intros (Hp & He & Hn). unfold hl at 1. rewrite header_loop_S.
  rewrite read_line_plain by exact Hp. rewrite He. cbn [hbind].
  assert (header_loop (length (l ++ 10 :: rest)) (apply_entry st e) rest = hl (apply_entry st e) rest).
  { apply header_loop_fuel; [rewrite app_length; cbn; lia|lia]. }
  destruct e; try exact H. contradiction.
Qed.

Lemma hl_lines : forall ls es st tail, Forall2 line_entry ls es ->
  hl st (unlines ls ++ tail) = hl (fold_left apply_entry es st) tail.
Proof.
  induction ls as [|l ls IH]; intros es st tail H; inversion H; subst; [reflexivity|].
  cbn [unlines flat_map fold_left]. rewrite <- !app_assoc. cbn [app].
  rewrite (hl_step st l y) by assumption. apply IH. assumption.
Qed.

Lemma pe_nodes : parse_entry (bs ".nodes") = HOk ENodes.
Proof. vm_compute. reflexivity. Qed.

Lemma hl_nodes st rest : hl st (bs ".nodes" ++ 10 :: rest) = HOk (st, rest).
Proof.
  unfold hl. rewrite header_loop_S.
  rewrite read_line_plain by (split; [discriminate|apply Forall_okb_bs_key; reflexivity]).
  rewrite pe_nodes. reflexivity.
Qed.

(** the local variables of the loader after the header lines of [print_header x] *)
Definition st_of (x : xheader) : hstate :=
  mkHS (x_ascii x) VINone (utf8_lossy (trim (wdd x))) (x_nnodes x) (x_nvars x) (len (x_supp x)) (len (x_rootids x))
       (x_ids x) (x_permids x) []
       (match x_names x with Some ns => if x_ver3 x then ns else [] | None => [] end)
       (match x_names x with Some ns => map (name_of ns) (x_ids x) | None => [] end)
       (match x_names x with Some ns => map (name_of ns) (x_l2v x) | None => [] end)
       (x_rootids x)
       (match x_rootnames x with Some rn => rn | None => [] end).

Lemma fold_entries x : fold_left apply_entry (xentries x) init_state = st_of x.
Proof.
  unfold xentries, st_of, wdd.
  destruct (x_dd x) as [|c dd], (x_names x) as [names|], (x_ver3 x), (x_rootnames x) as [rn|]; reflexivity.
Qed.

Lemma header_loop_print x rest : xwf x ->
  header_loop (S (length (print_header x ++ rest))) init_state (print_header x ++ rest) = HOk (st_of x, rest).
Proof.
  intros Hx. change (hl init_state (print_header x ++ rest) = HOk (st_of x, rest)).
  rewrite print_header_lines, <- !app_assoc. cbn [app].
  rewrite (hl_lines _ _ _ _ (lines_entries x Hx)), fold_entries.
  apply (hl_nodes (st_of x) rest).
Qed.

(** ** the validation accepts the state and yields [header_of x] *)

Lemma check_permids_complete nvars : forall p seen,
  Forall (fun l => l < nvars) p -> NoDup p -> (forall x, In x p -> ~ In x seen) ->
  check_permids nvars p seen = HOk tt.
Proof.
  induction p as [|l p IH]; intros seen Hr Hn Hd; [reflexivity|]. cbn [check_permids].
  inversion Hr; subst. inversion Hn; subst.
  destruct (N.leb_spec nvars l); [lia|].
  assert (E : existsb (N.eqb l) seen = false).
  { destruct (existsb (N.eqb l) seen) eqn:E; [|reflexivity]. apply existsb_exists in E.
    destruct E as (y & Hy & Ey). apply N.eqb_eq in Ey. subst y. exfalso. apply (Hd l); [left; reflexivity|exact Hy]. }
  rewrite E. apply IH; [assumption..|].
  intros x Hx [->|Hs]; [contradiction|]. apply (Hd x); [right; exact Hx|exact Hs].
Qed.

Lemma check_roots_complete nnodes : forall l,
  Forall (fun r => r <> 0%Z /\ Z.abs_N r <= nnodes) l -> check_roots nnodes l = HOk tt.
Proof.
  induction 1 as [|r l [H0 Hr] _ IH]; [reflexivity|]. cbn [check_roots].
  destruct (Z.eqb_spec r 0); [contradiction|]. destruct (N.ltb_spec nnodes (Z.abs_N r)); [lia|exact IH].
Qed.

Lemma combine_fst_snd {A B} (l : list (A * B)) : combine (map fst l) (map snd l) = l.
Proof. induction l as [|[a b] l IH]; cbn; [reflexivity|]. rewrite IH. reflexivity. Qed.

Lemma x_supp_combine x : combine (x_ids x) (x_permids x) = x_supp x.
Proof. apply combine_fst_snd. Qed.

Lemma supp_from_levels : forall vars v l, In l (map snd (supp_from v vars)) -> In l (map fst vars).
Proof.
  induction vars as [|[l' s] vars IH]; intros v l H; cbn [supp_from] in H; [destruct H|].
  destruct s; [destruct H as [<-|H]; [left; reflexivity|]|]; right; eapply IH; exact H.
Qed.

Lemma supp_from_levels_nodup : forall vars v, NoDup (map fst vars) -> NoDup (map snd (supp_from v vars)).
Proof.
  induction vars as [|[l s] vars IH]; intros v H; cbn [supp_from]; [constructor|].
  cbn in H. inversion H; subst. destruct s; [|apply IH; assumption].
  cbn [map snd]. constructor; [|apply IH; assumption].
  intros Hin. apply H2. eapply supp_from_levels. exact Hin.
Qed.

(** *** [support_var_order] = the support sorted by level *)

Fixpoint ssorted (l : list (N * N)) : Prop :=
  match l with
  | [] => True
  | p :: r => Forall (fun q => snd p < snd q) r /\ ssorted r
  end.

Lemma insert_perm p : forall l, Permutation (insert_by_level p l) (p :: l).
Proof.
  induction l as [|q l IH]; cbn; [apply Permutation_refl|].
  destruct (snd p <? snd q); [apply Permutation_refl|].
  eapply Permutation_trans; [apply perm_skip; exact IH|apply perm_swap].
Qed.

Lemma sort_perm l : Permutation (sort_by_level l) l.
Proof.
  induction l as [|p l IH]; cbn; [constructor|].
  eapply Permutation_trans; [apply insert_perm|apply perm_skip; exact IH].
Qed.

Lemma insert_sorted p : forall l, ssorted l -> (forall q, In q l -> snd q <> snd p) -> ssorted (insert_by_level p l).
Proof.
  induction l as [|q l IH]; intros Hs Hd; cbn; [split; [constructor|exact I]|].
  destruct Hs as [Hq Hs]. destruct (N.ltb_spec (snd p) (snd q)).
  - split; [|split; assumption]. constructor; [exact H|]. eapply Forall_impl; [|exact Hq]. cbn. intros; lia.
  - split; [|apply IH; [exact Hs|intros q' Hq'; apply Hd; right; exact Hq']].
    eapply Permutation_Forall; [apply Permutation_sym, insert_perm|].
    constructor; [|exact Hq]. specialize (Hd q (or_introl eq_refl)). lia.
Qed.

Lemma sort_sorted : forall l, NoDup (map snd l) -> ssorted (sort_by_level l).
Proof.
  induction l as [|p l IH]; intros H; cbn; [exact I|]. cbn in H. inversion H; subst.
  apply insert_sorted; [apply IH; assumption|].
  intros q Hq E. apply H2. rewrite <- E. apply in_map.
  eapply Permutation_in; [apply sort_perm|exact Hq].
Qed.

Lemma rank_nat_perm a b l : Permutation a b -> rank_nat a l = rank_nat b l.
Proof.
  unfold rank_nat. induction 1; cbn; try lia.
  - destruct (x <? l); cbn; lia.
  - destruct (x <? l), (y <? l); cbn; lia.
Qed.

Lemma rank_nat_sorted : forall S k v l, ssorted S -> nth_error S k = Some (v, l) -> rank_nat (map snd S) l = k.
Proof.
  unfold rank_nat. induction S as [|q S IH]; intros [|k] v l Hs Hn; cbn in Hn; try discriminate.
  - inversion Hn; subst. destruct Hs as [Hq _]. cbn. destruct (N.ltb_spec l l); [lia|].
    assert (E : filter (fun x => x <? l) (map snd S) = []).
    { clear -Hq. induction S as [|p S IH]; [reflexivity|]. inversion Hq; subst. cbn in *.
      destruct (N.ltb_spec (snd p) l); [lia|]. apply IH. assumption. }
    rewrite E. reflexivity.
  - destruct Hs as [Hq Hs]. cbn. rewrite Forall_forall in Hq. specialize (Hq _ (nth_error_In _ _ Hn)). cbn in Hq.
    destruct (N.ltb_spec (snd q) l); [|lia]. cbn. f_equal. eapply IH; eassumption.
Qed.

Lemma nth_error_ext {A} (a b : list A) : length a = length b ->
  (forall k, (k < length a)%nat -> nth_error a k = nth_error b k) -> a = b.
Proof.
  revert b. induction a as [|x a IH]; intros [|y b] L H; cbn in L; try lia; [reflexivity|].
  pose proof (H O ltac:(cbn; lia)) as H0. cbn in H0. inversion H0; subst. f_equal.
  apply IH; [lia|]. intros k Hk. apply (H (S k)). cbn. lia.
Qed.

Lemma fill_order_sorted supp : NoDup (map snd supp) ->
  fill_order supp (map snd supp) (repeat 0 (length supp)) = HOk (map fst (sort_by_level supp)).
Proof.
  intros Hnd.
  destruct (fill_order_spec (map snd supp) supp (repeat 0 (length supp))) as (order & Hf & Lo & Ho & _).
  - exact Hnd.
  - intros v l H. apply in_map_iff. exists (v, l). auto.
  - rewrite repeat_length, map_length. reflexivity.
  - rewrite Hf. f_equal. rewrite repeat_length in Lo.
    pose proof (Permutation_length (sort_perm supp)) as Ls.
    apply nth_error_ext; [rewrite map_length; lia|].
    intros k Hk. rewrite nth_error_map.
    destruct (nth_error (sort_by_level supp) k) as [[v l]|] eqn:E; [|apply nth_error_None in E; lia].
    cbn [option_map fst].
    rewrite <- (rank_nat_sorted _ _ _ _ (sort_sorted _ Hnd) E).
    rewrite <- (rank_nat_perm (map snd supp) (map snd (sort_by_level supp)) l)
      by (apply Permutation_map, Permutation_sym, sort_perm).
    apply Ho. eapply Permutation_in; [apply sort_perm|]. eapply nth_error_In. exact E.
Qed.

(** *** names *)

Lemma bytes_eqb_refl a : bytes_eqb a a = true.
Proof. induction a as [|x a IH]; cbn; [reflexivity|]. rewrite N.eqb_refl. exact IH. Qed.

Lemma nth_name_name_of names v : (N.to_nat v < length names)%nat -> nth_name names v = HOk (name_of names v).
Proof.
  intros H. unfold nth_name, name_of. rewrite (nth_error_nth' names [] H). reflexivity.
Qed.

Lemma check_supp_complete names : forall ids,
  Forall (fun v => (N.to_nat v < length names)%nat) ids ->
  check_supp (combine (map (name_of names) ids) ids) names = HOk tt.
Proof.
  induction 1 as [|v ids Hv _ IH]; [reflexivity|]. cbn [map combine check_supp].
  rewrite nth_name_name_of by exact Hv. cbn [hbind]. rewrite bytes_eqb_refl. exact IH.
Qed.

(** a list that agrees with [names] on the given positions *)
Lemma check_supp_agree names r : forall ids,
  Forall (fun v => nth_error r (N.to_nat v) = Some (name_of names v)) ids ->
  check_supp (combine (map (name_of names) ids) ids) r = HOk tt.
Proof.
  induction 1 as [|v ids Hv _ IH]; [reflexivity|]. cbn [map combine check_supp].
  unfold nth_name. rewrite Hv. cbn [hbind]. rewrite bytes_eqb_refl. exact IH.
Qed.

Lemma check_ordered_complete names ordered : forall pairs,
  Forall (fun p => (N.to_nat (fst p) < length names)%nat /\
                   nth_error ordered (N.to_nat (snd p)) = Some (name_of names (fst p))) pairs ->
  check_ordered pairs names ordered = HOk tt.
Proof.
  induction 1 as [|[id pm] pairs [Hv Ho] _ IH]; [reflexivity|]. cbn [check_ordered]. cbn [fst snd] in *.
  rewrite nth_name_name_of by exact Hv. cbn [hbind]. unfold nth_name. rewrite Ho. cbn [hbind].
  rewrite bytes_eqb_refl. exact IH.
Qed.

(** what [take_names] puts where *)
Lemma take_names_content : forall pairs v o v' o',
  take_names pairs v o = HOk (v', o') ->
  NoDup (map fst pairs) -> NoDup (map snd pairs) ->
  (forall id pm, In (id, pm) pairs -> nth_error v' (N.to_nat id) = nth_error o (N.to_nat pm)) /\
  (forall m, (forall id pm, In (id, pm) pairs -> N.to_nat id <> m) -> nth_error v' m = nth_error v m).
Proof.
  induction pairs as [|[id pm] pairs IH]; intros v o v' o' H N1 N2; cbn [take_names] in H.
  - inversion H; subst. split; [intros id pm []|reflexivity].
  - apply hbind_ok in H. destruct H as (name & Hn & H).
    destruct (set_nth (N.to_nat pm) [] o) as [o1|] eqn:Eo; [|discriminate].
    destruct (set_nth (N.to_nat id) name v) as [v1|] eqn:Ev; [|discriminate].
    cbn in N1, N2. inversion N1 as [|? ? Hn1 N1']; subst. inversion N2 as [|? ? Hn2 N2']; subst.
    destruct (IH _ _ _ _ H N1' N2') as [Hc Hk].
    destruct (set_nth_spec _ _ _ _ Eo) as (_ & _ & _ & Oo).
    destruct (set_nth_spec _ _ _ _ Ev) as (_ & Nv & _ & Ov).
    unfold nth_name in Hn. destruct (nth_error o (N.to_nat pm)) as [nm|] eqn:En; [|discriminate].
    inversion Hn; subst nm.
    split.
    + intros id' pm' [E|Hin].
      * inversion E; subst. rewrite Hk; [rewrite Nv, En; reflexivity|].
        intros id2 pm2 Hi2 E2. apply Hn1. apply in_map_iff. exists (id2, pm2). split; [cbn; lia|exact Hi2].
      * rewrite (Hc _ _ Hin). apply Oo. intros E2. apply Hn2. apply in_map_iff.
        exists (id', pm'). split; [cbn; lia|exact Hin].
    + intros m Hm. rewrite Hk; [apply Ov; intros E; apply (Hm id pm); [left; reflexivity|lia]|].
      intros id2 pm2 Hi2. apply (Hm id2 pm2). right; exact Hi2.
Qed.

Lemma fill_names_content : forall v pool r, fill_names v pool = HOk r ->
  forall m n, nth_error v m = Some n -> n <> [] -> nth_error r m = Some n.
Proof.
  induction v as [|a v IH]; intros pool r H m n Hn Hne; [destruct m; discriminate|].
  cbn [fill_names] in H. destruct a as [|c a].
  - destruct pool as [|q pool]; [discriminate|]. apply hmap_ok in H. destruct H as (r' & H & ->).
    destruct m as [|m]; cbn in Hn; [inversion Hn; subst; contradiction|]. cbn. eapply IH; eassumption.
  - apply hmap_ok in H. destruct H as (r' & H & ->).
    destruct m as [|m]; cbn in Hn |- *; [exact Hn|]. eapply IH; eassumption.
Qed.

(** *** the main lemma *)

Lemma len_map {A B} (f : A -> B) l : len (map f l) = len l.
Proof. unfold len. rewrite map_length. reflexivity. Qed.

Lemma x_ids_len x : len (x_ids x) = len (x_supp x).
Proof. apply len_map. Qed.
Lemma x_permids_len x : len (x_permids x) = len (x_supp x).
Proof. apply len_map. Qed.

Lemma supp_l2v x : xwf x -> forall id pm, In (id, pm) (x_supp x) ->
  nth_error (x_l2v x) (N.to_nat pm) = Some id /\ id < x_nvars x /\ pm < x_nvars x.
Proof.
  intros Hx id pm H. apply supp_from_spec in H. cbn [fst snd] in H. destruct H as (i & Hi & E).
  rewrite N.add_0_l in E. subst id. splits.
  - eapply xw_l2v; eassumption.
  - assert (i < length (x_vars x))%nat by (apply nth_error_Some; congruence). unfold x_nvars, len. lia.
  - pose proof (xw_levels x Hx) as Hl. rewrite Forall_forall in Hl.
    apply (Hl (pm, true)). eapply nth_error_In. exact Hi.
Qed.

Lemma var_names_block_print x : xwf x ->
  var_names_block (x_nvars x) (x_ids x) (x_permids x) (s_varnames (st_of x)) (s_suppnames (st_of x)) (s_ordered (st_of x))
  = HOk (h_varnames (header_of x)).
Proof.
  intros Hx. unfold st_of, header_of. cbn [s_varnames s_suppnames s_ordered h_varnames].
  pose proof (xw_names x Hx) as Hn. destruct (x_names x) as [names|]; [|reflexivity].
  destruct Hn as [Hlen Hgood]. unfold len in Hlen.
  pose proof (x_ids_range x Hx) as Hids. pose proof (xw_l2v_len x Hx) as Hl2v. unfold len in Hl2v.
  assert (Hidn : Forall (fun v => (N.to_nat v < length names)%nat) (x_ids x)).
  { eapply Forall_impl; [|exact Hids]. cbn. intros; lia. }
  assert (Hord : forall id pm, In (id, pm) (x_supp x) ->
           nth_error (map (name_of names) (x_l2v x)) (N.to_nat pm) = Some (name_of names id)).
  { intros id pm H. destruct (supp_l2v x Hx id pm H) as (H1 & _ & _). rewrite nth_error_map, H1. reflexivity. }
  destruct (Nat.eq_dec (length (x_l2v x)) 0) as [E0|E0].
  - (* no variables at all *)
    assert (El2v : x_l2v x = []) by (apply length_zero_iff_nil; exact E0).
    assert (Hv0 : x_vars x = []).
    { unfold x_nvars, len in Hl2v. rewrite E0 in Hl2v. destruct (x_vars x); [reflexivity|cbn in Hl2v; lia]. }
    assert (names = []) by (unfold x_nvars, len in Hlen; rewrite Hv0 in Hlen; destruct names; [reflexivity|cbn in Hlen; lia]).
    subst names. unfold recover_names, x_ids, x_permids, x_supp, x_nvars. rewrite Hv0, El2v.
    destruct (x_ver3 x); reflexivity.
  - assert (Hnv : 0 < x_nvars x) by lia.
    assert (Hordne : is_nil (map (name_of names) (x_l2v x)) = false).
    { destruct (x_l2v x); [cbn in E0; lia|reflexivity]. }
    destruct (x_ver3 x).
    + (* 3.0: .varnames is there *)
      unfold var_names_block. destruct names as [|n0 names']; [cbn in Hlen; lia|].
      set (names := n0 :: names') in *. cbn [is_nil].
      assert (E : (len names =? x_nvars x) = true) by (apply N.eqb_eq; unfold len; exact Hlen).
      rewrite E. cbn [guard hbind]. rewrite Hordne.
      rewrite check_ordered_complete.
      * cbn [hbind]. rewrite check_supp_complete by exact Hidn. reflexivity.
      * rewrite x_supp_combine. apply Forall_forall. intros [id pm] H. cbn [fst snd]. split.
        -- destruct (supp_l2v x Hx id pm H) as (_ & H2 & _). lia.
        -- apply Hord. exact H.
    + (* 2.0: the names are rebuilt from .orderedvarnames *)
      unfold var_names_block. cbn [is_nil]. rewrite Hordne. unfold recover_names.
      assert (N1 : NoDup (map fst (combine (x_ids x) (x_permids x)))).
      { rewrite x_supp_combine. apply incr_NoDup. apply sorted_strict_incr. apply supp_from_sorted. }
      assert (N2 : NoDup (map snd (combine (x_ids x) (x_permids x)))).
      { rewrite x_supp_combine. apply supp_from_levels_nodup. apply Hx. }
      assert (Hgo : Forall good_name (map (name_of names) (x_l2v x))).
      { rewrite Forall_map. eapply Forall_impl; [|apply (x_l2v_range x Hx)]. intros v Hv.
        apply name_of_good; [exact Hgood|]. cbv beta in Hv. lia. }
      destruct (take_names_spec (N.to_nat (x_nvars x)) (combine (x_ids x) (x_permids x))
                  (repeat [] (N.to_nat (x_nvars x))) (map (name_of names) (x_l2v x)))
        as (v1 & o1 & Ht & L1 & L2 & C).
      * apply repeat_length.
      * rewrite map_length. lia.
      * intros id pm H. rewrite x_supp_combine in H. destruct (supp_l2v x Hx id pm H) as (_ & H2 & H3). lia.
      * exact N1.
      * intros id pm H. apply nth_error_repeat. rewrite x_supp_combine in H.
        destruct (supp_l2v x Hx id pm H) as (_ & H2 & _). lia.
      * rewrite count_repeat_emp. unfold nemp. rewrite count_all; [rewrite map_length; lia|].
        eapply Forall_impl; [|exact Hgo]. intros [|c s] [H _]; [contradiction|reflexivity].
      * rewrite Ht. cbn [hbind].
        destruct (fill_names_spec v1 (filter (fun s => negb (is_nil s)) o1) C) as (r & Hf & Lr).
        rewrite Hf. cbn [hbind].
        rewrite check_supp_agree; [reflexivity|].
        destruct (take_names_content _ _ _ _ _ Ht N1 N2) as [Hc _].
        apply Forall_forall. intros id Hid.
        assert (exists pm, In (id, pm) (x_supp x)) as [pm Hp].
        { unfold x_ids in Hid. apply in_map_iff in Hid. destruct Hid as ([a b] & <- & H). exists b. exact H. }
        eapply fill_names_content; [exact Hf| |].
        -- rewrite (Hc id pm) by (rewrite x_supp_combine; exact Hp). apply Hord. exact Hp.
        -- destruct (supp_l2v x Hx id pm Hp) as (_ & H2 & _).
           apply (name_of_good names id Hgood). lia.
Qed.

Lemma is_nil_or {A} (l : list A) b : (l <> [] -> b = true) -> is_nil l || b = true.
Proof. destruct l; [reflexivity|]. intros H. cbn. apply H. discriminate. Qed.

Theorem validate_print x : xwf x -> validate (st_of x) = HOk (header_of x).
Proof.
  intros Hx. unfold validate.
  pose proof (var_names_block_print x Hx) as Hvn.
  assert (Hsupp : len (x_supp x) <= x_nvars x).
  { pose proof (supp_from_length (x_vars x) 0). unfold x_supp, x_nvars, len. lia. }
  assert (G1 : (s_nsupp (st_of x) <=? s_nvars (st_of x)) = true) by (apply N.leb_le; exact Hsupp).
  assert (G2 : (len (s_ids (st_of x)) =? s_nsupp (st_of x)) = true) by (apply N.eqb_eq; apply x_ids_len).
  assert (G3 : (len (s_permids (st_of x)) =? s_nsupp (st_of x)) = true) by (apply N.eqb_eq; apply x_permids_len).
  assert (G5 : sorted_strict (s_ids (st_of x)) = true) by apply supp_from_sorted.
  assert (G6 : is_nil (s_ids (st_of x)) || (last (s_ids (st_of x)) 0 <? s_nvars (st_of x)) = true).
  { apply is_nil_or. intros Hne. apply N.ltb_lt. cbn [st_of s_ids s_nvars] in *.
    pose proof (x_ids_range x Hx) as Hr. rewrite Forall_forall in Hr. apply Hr.
    destruct (exists_last Hne) as (l' & a & ->). rewrite last_last. apply in_or_app. right. left. reflexivity. }
  assert (G7 : check_permids (s_nvars (st_of x)) (s_permids (st_of x)) [] = HOk tt).
  { apply check_permids_complete; [apply (x_permids_range x Hx)|apply supp_from_levels_nodup; apply Hx|intros ? _ []]. }
  assert (G8 : fill_order (combine (s_ids (st_of x)) (s_permids (st_of x))) (s_permids (st_of x))
                 (repeat 0 (N.to_nat (s_nsupp (st_of x)))) = HOk (h_order (header_of x))).
  { cbn [st_of s_ids s_permids s_nsupp header_of h_order]. rewrite x_supp_combine. unfold len. rewrite Nat2N.id.
    apply fill_order_sorted. apply supp_from_levels_nodup. apply Hx. }
  assert (G9 : is_nil (s_ordered (st_of x)) || (len (s_ordered (st_of x)) =? s_nvars (st_of x)) = true).
  { cbn [st_of s_ordered s_nvars]. destruct (x_names x); [|reflexivity]. apply is_nil_or. intros _.
    apply N.eqb_eq. rewrite len_map. apply Hx. }
  assert (G10 : is_nil (s_suppnames (st_of x)) || (len (s_suppnames (st_of x)) =? s_nsupp (st_of x)) = true).
  { cbn [st_of s_suppnames s_nsupp]. destruct (x_names x); [|reflexivity]. apply is_nil_or. intros _.
    apply N.eqb_eq. rewrite len_map. apply x_ids_len. }
  assert (G12 : (len (s_rootids (st_of x)) =? s_nroots (st_of x)) = true) by apply N.eqb_refl.
  assert (G13 : check_roots (s_nnodes (st_of x)) (s_rootids (st_of x)) = HOk tt).
  { apply check_roots_complete. eapply Forall_impl; [|apply (xw_rootids x Hx)]. cbn. tauto. }
  assert (G14 : is_nil (s_rootnames (st_of x)) || (len (s_rootnames (st_of x)) =? s_nroots (st_of x)) = true).
  { cbn [st_of s_rootnames s_nroots]. pose proof (xw_rootnames x Hx) as Hr.
    destruct (x_rootnames x) as [rn|]; [|reflexivity]. apply is_nil_or. intros _. apply N.eqb_eq. unfold len. destruct Hr as [-> _]. reflexivity. }
  rewrite G1, G2, G3. cbn [guard hbind].
  change (is_nil (s_auxids (st_of x))) with true. cbn [orb guard hbind].
  rewrite G5, G6. cbn [guard hbind]. rewrite G7. cbn [hbind]. rewrite G8. cbn [hbind].
  rewrite G9, G10. cbn [guard hbind].
  change (s_nvars (st_of x)) with (x_nvars x). change (s_ids (st_of x)) with (x_ids x).
  change (s_permids (st_of x)) with (x_permids x). rewrite Hvn. cbn [hbind].
  rewrite G12. cbn [guard hbind]. rewrite G13. cbn [hbind]. rewrite G14. cbn [guard hbind].
  reflexivity.
Qed.

(** ** [load_header] reads back [print_header] *)

Theorem load_print_header x rest : xwf x -> load_header (print_header x ++ rest) = HOk (header_of x, rest).
Proof.
  intros Hx. unfold load_header. rewrite (header_loop_print x rest Hx). cbn [hbind].
  rewrite (validate_print x Hx). reflexivity.
Qed.
