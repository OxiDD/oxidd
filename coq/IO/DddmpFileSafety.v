(** * C15 (package C15h): SAFETY OF ACCEPTANCE of the node-section importers

    Whatever the model importers of IO/Dddmp.v accept — on ARBITRARY bytes — is a well-formed
    diagram: every node of the unique table refers to earlier nodes only (so the table is
    acyclic), the level of a node is strictly smaller than the levels of its children, all
    levels are levels of the support ([suppvar_level_map]), the vector [nodes] holds one valid
    edge per node ID of the file, the roots are valid edges, and every root denotes a
    well-defined function (the evaluation neither runs out of fuel nor into a dangling index:
    it is the unique value of a big-step relation and independent of the fuel). *)
From Coq Require Import List NArith ZArith Bool Arith Lia.
From OxiVerif Require Import Base.ListFacts IO.Dddmp IO.DddmpProofs.
Import ListNotations.
Open Scope N_scope.


(** ** results that are not the internal error

    [ni_and r P]: [r] is not [EInternal], the value the model returns where the Rust code
    would panic, and a successful result satisfies [P]. *)
Definition ni_and {A} (r : res A) (P : A -> Prop) : Prop := r <> Err EInternal /\ forall a, r = Ok a -> P a.

Lemma ni_and_ok {A} (a : A) (P : A -> Prop) : P a -> ni_and (Ok a) P.
Proof. intros H. split; [discriminate|]. intros a' E. inversion E; subst. exact H. Qed.

Lemma ni_and_err {A} e (P : A -> Prop) : e <> EInternal -> ni_and (Err e) P.
Proof. intros H. split; [intros E; inversion E; contradiction|discriminate]. Qed.

Lemma ni_and_bind {A B} (r : res A) (f : A -> res B) (Q : A -> Prop) (P : B -> Prop) :
  ni_and r Q -> (forall a, r = Ok a -> Q a -> ni_and (f a) P) -> ni_and (bind r f) P.
Proof.
  intros [Hr Hq] Hf. destruct r as [a|e]; cbn [bind].
  - apply Hf; [reflexivity|apply Hq; reflexivity].
  - split; [intros E; apply Hr; inversion E; reflexivity|discriminate].
Qed.

Lemma ni_bind {A B} (r : res A) (f : A -> res B) (P : B -> Prop) :
  r <> Err EInternal -> (forall a, r = Ok a -> ni_and (f a) P) -> ni_and (bind r f) P.
Proof. intros Hr Hf. apply (ni_and_bind r f (fun _ => True)); [split; auto|auto]. Qed.

Lemma ni_and_ni {A} (r : res A) (P : A -> Prop) : ni_and r P -> r <> Err EInternal.
Proof. intros [H _]. exact H. Qed.

Lemma ni_and_impl {A} (r : res A) (P Q : A -> Prop) :
  (forall a, r = Ok a -> P a -> Q a) -> ni_and r P -> ni_and r Q.
Proof. intros H [Hr Hp]. split; [exact Hr|]. intros a E. apply (H a E). apply Hp. exact E. Qed.

(** ** well-formed unique tables *)

(** the edge points to a terminal or to an entry of [s] *)
Definition edge_in (s : list cnode) (e : cedge) : Prop :=
  match ce_ref e with RTerm _ => True | RNode i => (N.to_nat i < length s)%nat end.

(** the edge points to a terminal or to an entry before index [i] *)
Definition ref_below (i : nat) (e : cedge) : Prop :=
  match ce_ref e with RTerm _ => True | RNode j => (N.to_nat j < i)%nat end.

Definition node_ok (s : list cnode) (i : nat) (n : cnode) : Prop :=
  ref_below i (cn_t n) /\ ref_below i (cn_e n) /\
  cn_level n < edge_level s (cn_t n) /\ cn_level n < edge_level s (cn_e n).

(** children first (acyclic) and levels strictly increasing along edges *)
Definition store_wf (s : list cnode) : Prop :=
  forall i n, nth_error s i = Some n -> node_ok s i n.

(** every level of the table is one of the given support levels *)
Definition levels_in (slm : list N) (s : list cnode) : Prop :=
  Forall (fun n => In (cn_level n) slm) s.

Definition ext (s s' : list cnode) : Prop := exists x, s' = s ++ x.

Lemma ext_refl s : ext s s.
Proof. exists []. now rewrite app_nil_r. Qed.

Lemma ext_trans a b c : ext a b -> ext b c -> ext a c.
Proof. intros [x ->] [y ->]. exists (x ++ y). now rewrite app_assoc. Qed.

Lemma ext_snoc s n : ext s (s ++ [n]).
Proof. now exists [n]. Qed.

Lemma ref_below_mono i j e : (i <= j)%nat -> ref_below i e -> ref_below j e.
Proof. unfold ref_below. destruct (ce_ref e); [trivial|lia]. Qed.

Lemma edge_in_ext s s' e : ext s s' -> edge_in s e -> edge_in s' e.
Proof.
  intros [x ->]. unfold edge_in. destruct (ce_ref e); [trivial|]. rewrite app_length. lia.
Qed.

Lemma edge_level_ext s s' e : ext s s' -> edge_in s e -> edge_level s' e = edge_level s e.
Proof.
  intros [x ->]. unfold edge_in, edge_level. destruct (ce_ref e); [reflexivity|].
  intros H. rewrite nth_error_app1 by exact H. reflexivity.
Qed.

Lemma ref_below_in s i e : (i <= length s)%nat -> ref_below i e -> edge_in s e.
Proof. unfold ref_below, edge_in. destruct (ce_ref e); [trivial|lia]. Qed.

Lemma edge_in_neg s e : edge_in s (neg e) <-> edge_in s e.
Proof. reflexivity. Qed.

Lemma edge_level_neg s e : edge_level s (neg e) = edge_level s e.
Proof. reflexivity. Qed.

Lemma Forall_edge_in_ext s s' l : ext s s' -> Forall (edge_in s) l -> Forall (edge_in s') l.
Proof. intros He. apply Forall_impl. intros e. apply edge_in_ext. exact He. Qed.

Lemma store_wf_nil : store_wf [].
Proof. intros [|i] n H; discriminate. Qed.

(** appending a node whose children are in the table and lie strictly below its level *)
Lemma store_wf_snoc s n :
  store_wf s -> edge_in s (cn_t n) -> edge_in s (cn_e n) ->
  cn_level n < edge_level s (cn_t n) -> cn_level n < edge_level s (cn_e n) ->
  store_wf (s ++ [n]).
Proof.
  intros Hwf Ht He Lt Le i m Hi.
  assert (Hm : ref_below i (cn_t m) /\ ref_below i (cn_e m) /\ edge_in s (cn_t m) /\ edge_in s (cn_e m) /\
               cn_level m < edge_level s (cn_t m) /\ cn_level m < edge_level s (cn_e m)).
  { destruct (nth_error_snoc _ _ _ _ Hi) as [[Hlt Hi']|[-> ->]].
    - destruct (Hwf i m Hi') as (R1 & R2 & L1 & L2).
      splits; try assumption; (eapply ref_below_in; [|eassumption]; lia).
    - splits; assumption. }
  destruct Hm as (R1 & R2 & I1 & I2 & L1 & L2).
  unfold node_ok. rewrite !(edge_level_ext s (s ++ [n])) by (auto using ext_snoc). splits; assumption.
Qed.

(** ** the unique table operations keep the table well-formed *)

Lemma find_index_some {A} (p : A -> bool) l : forall i k,
  find_index p l i = Some k ->
  exists x, nth_error l (N.to_nat (k - i)) = Some x /\ p x = true /\ i <= k.
Proof.
  induction l as [|y l IH]; intros i k H; cbn in H; [discriminate|].
  destruct (p y) eqn:E.
  - inversion H; subst. exists y. rewrite N.sub_diag. cbn. splits; [exact E|lia].
  - destruct (IH _ _ H) as (x & Hx & Hp & Hle). exists x.
    replace (N.to_nat (k - i)) with (S (N.to_nat (k - (i + 1)))) by lia.
    cbn. splits; [exact Hx|exact Hp|lia].
Qed.

(** result of [find_or_add]: the table grows by at most the new node; the returned
    reference points to a node equal to [n] *)
Lemma find_or_add_spec s n s' r :
  find_or_add s n = (s', r) ->
  exists i, r = RNode i /\ nth_error s' (N.to_nat i) = Some n /\ (s' = s \/ s' = s ++ [n]).
Proof.
  unfold find_or_add. destruct (find_index (cnode_eqb n) s 0) as [k|] eqn:E; intros H; inversion H; subst.
  - destruct (find_index_some _ _ _ _ E) as (x & Hx & Hp & _).
    rewrite N.sub_0_r in Hx. apply cnode_eqb_eq in Hp. subst x.
    exists k. splits; [exact Hx|left; reflexivity].
  - exists (N.of_nat (length s)). rewrite Nat2N.id. splits.
    + rewrite nth_error_app2 by lia. rewrite Nat.sub_diag. reflexivity.
    + right; reflexivity.
Qed.

Lemma levels_in_snoc slm s n : levels_in slm s -> In (cn_level n) slm -> levels_in slm (s ++ [n]).
Proof. intros H Hn. apply Forall_app. split; [exact H|]. constructor; [exact Hn|constructor]. Qed.

(** inserting a node through [find_or_add] *)
Lemma find_or_add_wf slm s level t e s' r :
  store_wf s -> levels_in slm s -> In level slm ->
  edge_in s t -> edge_in s e -> level < edge_level s t -> level < edge_level s e ->
  find_or_add s (mkN level t e) = (s', r) ->
  store_wf s' /\ levels_in slm s' /\ ext s s' /\
  (forall tag, edge_in s' (mkE r tag) /\ edge_level s' (mkE r tag) = level).
Proof.
  intros Hwf Hl Hin It Ie Lt Le H.
  destruct (find_or_add_spec _ _ _ _ H) as (i & -> & Hnth & Hs').
  assert (Hr : forall tag, edge_in s' (mkE (RNode i) tag) /\ edge_level s' (mkE (RNode i) tag) = level).
  { intros tag. split; [unfold edge_in; cbn; apply nth_error_Some; congruence|].
    unfold edge_level. cbn. rewrite Hnth. reflexivity. }
  destruct Hs' as [->| ->]; splits; try assumption.
  - apply ext_refl.
  - apply store_wf_snoc; assumption.
  - apply levels_in_snoc; assumption.
  - apply ext_snoc.
Qed.

(** what [mk_node] can do, for all four rule sets *)
Inductive mk_node_res (k : kind) (s : list cnode) (level : N) (t e : cedge) : list cnode -> cedge -> Prop :=
| MkSame : t = e -> mk_node_res k s level t e s t
| MkZero : k = KZBDD -> mk_node_res k s level t e s e
| MkAdd s' r : find_or_add s (mkN level t e) = (s', r) -> mk_node_res k s level t e s' (mkE r false)
| MkAddNeg s' r : find_or_add s (mkN level (neg t) (neg e)) = (s', r) -> mk_node_res k s level t e s' (mkE r true).

Lemma mk_node_cases k s level t e s' r : mk_node k s level t e = (s', r) -> mk_node_res k s level t e s' r.
Proof.
  assert (Hsame : cedge_eqb t e = true -> (s, t) = (s', r) -> mk_node_res k s level t e s' r).
  { intros Eq E. apply cedge_eqb_eq in Eq. inversion E; subst. apply MkSame. reflexivity. }
  assert (Hadd : (let '(s1, r1) := find_or_add s (mkN level t e) in (s1, mkE r1 false)) = (s', r) ->
                 mk_node_res k s level t e s' r).
  { destruct (find_or_add s (mkN level t e)) as [s1 r1] eqn:F. intros E; inversion E; subst. apply MkAdd. exact F. }
  unfold mk_node. destruct k.
  - destruct (cedge_eqb t e); [exact (Hsame eq_refl)|exact Hadd].
  - destruct (cedge_eqb t e); [exact (Hsame eq_refl)|]. destruct (ce_tag t); [|exact Hadd].
    destruct (find_or_add s (mkN level (neg t) (neg e))) as [s1 r1] eqn:F.
    intros E; inversion E; subst. apply MkAddNeg. exact F.
  - destruct (cref_eqb (ce_ref t) (RTerm (TNum 0))); [|exact Hadd].
    intros E; inversion E; subst. apply MkZero. reflexivity.
  - destruct (cedge_eqb t e); [exact (Hsame eq_refl)|exact Hadd].
Qed.

(** [mk_node] of all four kinds: the table stays well-formed, the result is a valid edge
    whose level is not above [level] *)
Lemma mk_node_wf k slm s level t e s' r :
  store_wf s -> levels_in slm s -> In level slm ->
  edge_in s t -> edge_in s e -> level < edge_level s t -> level < edge_level s e ->
  mk_node k s level t e = (s', r) ->
  store_wf s' /\ levels_in slm s' /\ ext s s' /\ edge_in s' r /\ level <= edge_level s' r.
Proof.
  intros Hwf Hl Hin It Ie Lt Le H.
  assert (Hadd : forall t0 e0 tag r1, edge_in s t0 -> edge_in s e0 ->
                 level < edge_level s t0 -> level < edge_level s e0 ->
                 find_or_add s (mkN level t0 e0) = (s', r1) ->
                 store_wf s' /\ levels_in slm s' /\ ext s s' /\ edge_in s' (mkE r1 tag) /\
                 level <= edge_level s' (mkE r1 tag)).
  { intros t0 e0 tag r1 I1 I2 L1 L2 F.
    destruct (find_or_add_wf slm s level t0 e0 s' r1 Hwf Hl Hin I1 I2 L1 L2 F) as (W & L & X & R).
    destruct (R tag) as [Ri Rl]. splits; try assumption. rewrite Rl. lia. }
  destruct (mk_node_cases _ _ _ _ _ _ _ H) as [_|_|s' r1 F|s' r1 F].
  - splits; try assumption; [apply ext_refl|lia].
  - splits; try assumption; [apply ext_refl|lia].
  - exact (Hadd t e false r1 It Ie Lt Le F).
  - exact (Hadd (neg t) (neg e) true r1 It Ie Lt Le F).
Qed.

(** levels of the nodes an edge can point to *)
Lemma edge_level_in slm s e : levels_in slm s -> edge_in s e ->
  edge_level s e = level_max \/ In (edge_level s e) slm.
Proof.
  unfold edge_in, edge_level, levels_in. intros Hl. destruct (ce_ref e) as [v|i]; [now left|].
  intros Hi. destruct (nth_error s (N.to_nat i)) as [n|] eqn:E; [|now left].
  right. rewrite Forall_forall in Hl. apply Hl. eapply nth_error_In. exact E.
Qed.

(** [BDDFunction::not_edge_owned] *)
Lemma bdd_not_wf slm : forall fuel s e s' e',
  store_wf s -> levels_in slm s -> edge_in s e ->
  bdd_not s fuel e = Ok (s', e') ->
  store_wf s' /\ levels_in slm s' /\ ext s s' /\ edge_in s' e' /\ edge_level s e <= edge_level s' e'.
Proof.
  induction fuel as [|f IH]; intros s e s' e' Hwf Hl Hin H.
  - cbn in H. destruct (ce_ref e) as [[z| | |]|i] eqn:Er; try discriminate.
    inversion H; subst. splits; try assumption; [apply ext_refl|].
    unfold edge_level. rewrite Er. cbn. lia.
  - cbn in H. destruct (ce_ref e) as [[z| | |]|i] eqn:Er; try discriminate.
    + inversion H; subst. splits; try assumption; [apply ext_refl|].
      unfold edge_level. rewrite Er. cbn. lia.
    + destruct (nth_error s (N.to_nat i)) as [n|] eqn:En; [|discriminate].
      destruct (Hwf _ _ En) as (R1 & R2 & L1 & L2).
      assert (Hi : (N.to_nat i < length s)%nat) by (apply nth_error_Some; congruence).
      assert (I1 : edge_in s (cn_t n)) by (eapply ref_below_in; [|exact R1]; lia).
      assert (I2 : edge_in s (cn_e n)) by (eapply ref_below_in; [|exact R2]; lia).
      destruct (bdd_not s f (cn_t n)) as [[s1 t']|] eqn:B1; [|discriminate]. cbn [bind] in H.
      destruct (IH _ _ _ _ Hwf Hl I1 B1) as (W1 & Lv1 & X1 & It' & Lt').
      destruct (bdd_not s1 f (cn_e n)) as [[s2 e2]|] eqn:B2; [|discriminate]. cbn [bind] in H.
      destruct (IH _ _ _ _ W1 Lv1 (edge_in_ext _ _ _ X1 I2) B2) as (W2 & Lv2 & X2 & Ie' & Le').
      rewrite (edge_level_ext s s1) in Le' by assumption.
      inversion H as [Hmk]. clear H.
      assert (Hlv : In (cn_level n) slm).
      { unfold levels_in in Hl. rewrite Forall_forall in Hl. apply Hl. eapply nth_error_In. exact En. }
      destruct (mk_node_wf KBDD slm s2 (cn_level n) t' e2 s' e' W2 Lv2 Hlv
                  (edge_in_ext _ _ _ X2 It') Ie'
                  ltac:(rewrite (edge_level_ext s1 s2) by assumption; lia) ltac:(lia) Hmk)
        as (W & Lv & X & Ir & Lr).
      splits; try assumption.
      * eapply ext_trans; [exact X1|]. eapply ext_trans; [exact X2|exact X].
      * unfold edge_level at 1. rewrite Er, En. exact Lr.
Qed.

(** the [complement] argument of [import] *)
Lemma complement_wf k slm s e s' e' :
  store_wf s -> levels_in slm s -> edge_in s e ->
  complement k s e = Ok (s', e') ->
  store_wf s' /\ levels_in slm s' /\ ext s s' /\ edge_in s' e' /\ edge_level s e <= edge_level s' e'.
Proof.
  intros Hwf Hl Hin H. destruct k; unfold complement in H; try discriminate.
  - eapply bdd_not_wf; eassumption.
  - inversion H; subst. splits; try assumption; [apply ext_refl|].
    rewrite edge_level_neg. lia.
Qed.

Lemma complement_if_wf (c : bool) k slm s e s' e' :
  store_wf s -> levels_in slm s -> edge_in s e ->
  (if c then complement k s e else Ok (s, e)) = Ok (s', e') ->
  store_wf s' /\ levels_in slm s' /\ ext s s' /\ edge_in s' e' /\ edge_level s e <= edge_level s' e'.
Proof.
  intros W L I H. destruct c.
  - eapply complement_wf; eassumption.
  - inversion H; subst. splits; try assumption; [apply ext_refl|lia].
Qed.

(** ** importer states *)

Record st_wf (slm : list N) (st : ist) : Prop := {
  sw_store : store_wf (st_store st);
  sw_levels : levels_in slm (st_store st);
  sw_nodes : Forall (edge_in (st_store st)) (st_nodes st)
}.

Lemma st_wf_empty slm : st_wf slm empty_state.
Proof. split; [apply store_wf_nil|constructor|constructor]. Qed.

Lemma node_at_in slm st i e : st_wf slm st -> node_at st i = Ok e -> edge_in (st_store st) e.
Proof.
  intros [_ _ Hn] H. unfold node_at in H.
  destruct (nth_error (st_nodes st) (N.to_nat i)) as [x|] eqn:E; [|discriminate].
  inversion H; subst. rewrite Forall_forall in Hn. apply Hn. eapply nth_error_In. exact E.
Qed.

Lemma st_wf_push slm st s' r :
  st_wf slm st -> store_wf s' -> levels_in slm s' -> ext (st_store st) s' -> edge_in s' r ->
  st_wf slm (mkS s' (st_nodes st ++ [r])).
Proof.
  intros [_ _ Hn] W L X R. split; cbn; try assumption.
  apply Forall_app. split; [eapply Forall_edge_in_ext; eassumption|]. constructor; [exact R|constructor].
Qed.

(** *** binary node section *)

Lemma read_unescape_shorter inp b inp' : read_unescape inp = Ok (b, inp') -> (length inp' < length inp)%nat.
Proof.
  destruct inp as [|x r]; cbn; [discriminate|].
  destruct (x =? 0).
  - destruct r as [|c r']; [discriminate|]. destruct (unescape_code c); [|discriminate].
    intros H; inversion H; subst. cbn. lia.
  - intros H; inversion H; subst. cbn. lia.
Qed.

Lemma dec7_shorter : forall inp acc v inp', dec7 acc inp = Ok (v, inp') -> (length inp' <= length inp)%nat.
Proof.
  induction inp as [inp IH] using (induction_ltof1 _ (@length byte)). unfold ltof in IH.
  intros acc v inp' H. destruct inp as [|x r]; cbn in H; [discriminate|].
  destruct (x =? 0).
  - destruct r as [|c r']; [discriminate|]. destruct (unescape_code c); [|discriminate].
    destruct (dec7_step acc b) as [[a' [|]]|]; try discriminate.
    + inversion H; subst. cbn. lia.
    + apply IH in H; cbn in *; lia.
  - destruct (dec7_step acc x) as [[a' [|]]|]; try discriminate.
    + inversion H; subst. cbn. lia.
    + apply IH in H; cbn in *; lia.
Qed.

Lemma decode_7bit_shorter inp v inp' : decode_7bit inp = Ok (v, inp') -> (length inp' <= length inp)%nat.
Proof. apply dec7_shorter. Qed.

Lemma idx_ref_spec inp node_id c i inp' :
  idx_ref inp node_id c = Ok (i, inp') -> i + 1 < node_id /\ (length inp' <= length inp)%nat.
Proof.
  unfold idx_ref. intros H.
  match type of H with bind ?r _ = _ => destruct r as [[id inp1]|] eqn:E; [|discriminate] end.
  cbn [bind] in H.
  destruct (N.eqb_spec id 0); [discriminate|]. destruct (N.leb_spec node_id id); [discriminate|].
  inversion H; subst. split; [lia|].
  destruct c.
  - inversion E; subst. lia.
  - apply decode_7bit_shorter in E. exact E.
  - destruct (decode_7bit inp) as [[d inp2]|] eqn:D; [|discriminate]. cbn [bind] in E.
    destruct (node_id <? d); [discriminate|]. inversion E; subst.
    apply decode_7bit_shorter in D. exact D.
  - inversion E; subst. lia.
Qed.

Lemma import_bin_node_wf k slm nlevels terminal st node_id inp st' inp' :
  st_wf slm st -> (exists v, ce_ref terminal = RTerm v) ->
  import_bin_node k slm nlevels terminal st node_id inp = Ok (st', inp') ->
  st_wf slm st' /\ length (st_nodes st') = S (length (st_nodes st)) /\ (length inp' < length inp)%nat /\
  ext (st_store st) (st_store st').
Proof.
  intros Hst [tv Htv] H. unfold import_bin_node in H.
  destruct (read_unescape inp) as [[b inp0]|] eqn:R; [|discriminate]. cbn [bind] in H.
  pose proof (read_unescape_shorter _ _ _ R) as Hlen0.
  destruct (split_node_code b) as [[[vc tc] ecompl] ec].
  destruct (code_terminal_or vc) as [->|Hvc].
  - inversion H; subst. splits.
    + apply (st_wf_push slm st); try apply Hst; [apply ext_refl|]. unfold edge_in. rewrite Htv. trivial.
    + cbn. rewrite app_length. cbn. lia.
    + exact Hlen0.
    + apply ext_refl.
  - rewrite code_match in H by exact Hvc.
    match type of H with bind ?r _ = _ => destruct r as [[vid inp1]|] eqn:E1; [|discriminate] end.
    cbn [bind] in H.
    assert (Hl1 : (length inp1 <= length inp0)%nat).
    { destruct (has_arg vc); [apply decode_7bit_shorter in E1; exact E1|inversion E1; subst; lia]. }
    destruct (idx_ref inp1 node_id tc) as [[ti inp2]|] eqn:E2; [|discriminate]. cbn [bind] in H.
    destruct (idx_ref_spec _ _ _ _ _ E2) as [_ Hl2].
    destruct (node_at st ti) as [t|] eqn:E3; [|discriminate]. cbn [bind] in H.
    destruct (idx_ref inp2 node_id ec) as [[ei inp3]|] eqn:E4; [|discriminate]. cbn [bind] in H.
    destruct (idx_ref_spec _ _ _ _ _ E4) as [_ Hl3].
    destruct (node_at st ei) as [e|] eqn:E5; [|discriminate]. cbn [bind] in H.
    pose proof (node_at_in _ _ _ _ Hst E3) as It. pose proof (node_at_in _ _ _ _ Hst E5) as Ie.
    match type of H with bind ?r _ = _ => destruct r as [[store e2]|] eqn:E6; [|discriminate] end.
    cbn [bind] in H.
    destruct (complement_if_wf _ _ slm _ _ _ _ (sw_store _ _ Hst) (sw_levels _ _ Hst) Ie E6)
      as (W & L & X & Ie2 & Le2).
    destruct (resolve_vid slm nlevels vc vid (edge_level (st_store st) t) (edge_level (st_store st) e))
      as [vid'|] eqn:E7; [|discriminate]. cbn [bind] in H.
    destruct (nth_error slm (N.to_nat vid')) as [level|] eqn:E8; [|discriminate].
    destruct (N.leb_spec (edge_level (st_store st) t) level); [discriminate|].
    destruct (N.leb_spec (edge_level (st_store st) e) level); [discriminate|]. cbn [orb] in H.
    destruct (mk_node k store level t e2) as [store' r] eqn:E9.
    inversion H; subst.
    destruct (mk_node_wf k slm store level t e2 store' r W L (nth_error_In _ _ E8)
                (edge_in_ext _ _ _ X It) Ie2
                ltac:(rewrite (edge_level_ext (st_store st)) by assumption; lia) ltac:(lia) E9)
      as (W' & L' & X' & Ir & _).
    splits.
    + apply (st_wf_push slm st); try assumption. eapply ext_trans; eassumption.
    + cbn. rewrite app_length. cbn. lia.
    + lia.
    + cbn. eapply ext_trans; eassumption.
Qed.

Lemma import_bin_loop_wf k slm nlevels terminal : (exists v, ce_ref terminal = RTerm v) ->
  forall n node_id st inp st' inp',
  st_wf slm st ->
  import_bin_loop k slm nlevels terminal n node_id st inp = Ok (st', inp') ->
  st_wf slm st' /\ length (st_nodes st') = (length (st_nodes st) + n)%nat /\
  (length inp' + n <= length inp)%nat /\ ext (st_store st) (st_store st').
Proof.
  intros Hterm. induction n as [|n IH]; intros node_id st inp st' inp' Hst H; cbn in H.
  - inversion H; subst. splits; try apply Hst; [lia|lia|apply ext_refl].
  - destruct (import_bin_node k slm nlevels terminal st node_id inp) as [[st1 inp1]|] eqn:E; [|discriminate].
    cbn [bind] in H.
    destruct (import_bin_node_wf _ _ _ _ _ _ _ _ _ Hst Hterm E) as (W1 & L1 & I1 & X1).
    destruct (IH _ _ _ _ _ W1 H) as (W & L & I & X).
    splits; try apply W; [lia|lia|eapply ext_trans; eassumption].
Qed.

Lemma bin_terminal_term k t : bin_terminal k = Some t -> exists v, ce_ref t = RTerm v.
Proof. destruct k; cbn; intros H; inversion H; subst; eexists; reflexivity. Qed.

Theorem import_bin_wf k slm nlevels nnodes inp st inp' :
  import_bin k slm nlevels nnodes inp = Ok (st, inp') ->
  st_wf slm st /\ length (st_nodes st) = N.to_nat nnodes /\ (length inp' + N.to_nat nnodes <= length inp)%nat.
Proof.
  unfold import_bin. destruct (N.eqb_spec nnodes 0) as [->|Hn].
  - intros H; inversion H; subst. splits; try apply st_wf_empty; cbn; lia.
  - destruct (bin_terminal k) as [t|] eqn:Et; [|discriminate]. intros H.
    destruct (import_bin_loop_wf k slm nlevels t (bin_terminal_term _ _ Et) _ _ _ _ _ _ (st_wf_empty slm) H)
      as (W & L & I & _).
    splits; try apply W; [exact L|exact I].
Qed.

(** *** ASCII node section *)

Lemma ascii_child_check_in slm st node_id level child e :
  st_wf slm st -> ascii_child_check st node_id level child = Ok e ->
  edge_in (st_store st) e /\ level < edge_level (st_store st) e.
Proof.
  intros Hst H. unfold ascii_child_check in H.
  destruct (node_id <=? Z.abs_N child); [discriminate|].
  destruct (node_at st (Z.abs_N child - 1)) as [x|] eqn:E; [|discriminate]. cbn [bind] in H.
  destruct (N.leb_spec (edge_level (st_store st) x) level); [discriminate|].
  inversion H; subst. split; [eapply node_at_in; eassumption|assumption].
Qed.

Lemma parse_terminal_term k tok e : parse_terminal k tok = Some e -> exists v, ce_ref e = RTerm v.
Proof.
  unfold parse_terminal. destruct k;
    repeat match goal with |- context [if ?c then _ else _] => destruct c end;
    try (intros H; inversion H; subst; eexists; reflexivity); try discriminate.
  destruct (parse_i64 tok); [|discriminate]. intros H; inversion H; subst; eexists; reflexivity.
Qed.

Lemma import_ascii_line_wf k vin slm st node_id line st' :
  st_wf slm st -> import_ascii_line k vin slm st node_id line = Ok st' ->
  st_wf slm st' /\ length (st_nodes st') = S (length (st_nodes st)) /\ ext (st_store st) (st_store st').
Proof.
  intros Hst H. unfold import_ascii_line in H.
  destruct (parse_usize line) as [[rest nid]|]; [|discriminate]. cbn [bind] in H.
  destruct (negb (nid =? node_id)); [discriminate|].
  match type of H with bind ?r _ = _ => destruct r as [rest1|]; [|discriminate] end. cbn [bind] in H.
  destruct (split_sp (trim_start rest1)) as [[var_tok rest2]|]; [|discriminate].
  destruct (parse_edge_list rest2) as [children|]; [|discriminate]. cbn [bind] in H.
  destruct children as [|c1 [|c2 [|c3 cs]]]; try discriminate.
  destruct ((c1 =? 0)%Z || (c2 =? 0)%Z).
  - destruct (parse_terminal k var_tok) as [e|] eqn:Et; [|discriminate]. inversion H; subst.
    destruct (parse_terminal_term _ _ _ Et) as [v Hv]. splits.
    + apply (st_wf_push slm st); try apply Hst; [apply ext_refl|]. unfold edge_in. rewrite Hv. trivial.
    + cbn. rewrite app_length. cbn. lia.
    + apply ext_refl.
  - destruct (parse_u32 var_tok) as [[r0 var_id]|]; [|discriminate]. cbn [bind] in H.
    destruct (nth_error slm (N.to_nat var_id)) as [level|] eqn:El; [|discriminate].
    destruct (ascii_child_check st node_id level c1) as [e1|] eqn:C1; [|discriminate]. cbn [bind] in H.
    destruct (ascii_child_check st node_id level c2) as [e2|] eqn:C2; [|discriminate]. cbn [bind] in H.
    destruct (ascii_child_check_in _ _ _ _ _ _ Hst C1) as [I1 L1].
    destruct (ascii_child_check_in _ _ _ _ _ _ Hst C2) as [I2 L2].
    destruct (ascii_child_edge k (st_store st) e1 c1) as [[s1 e1']|] eqn:A1; [|discriminate]. cbn [bind] in H.
    destruct (complement_if_wf _ _ slm _ _ _ _ (sw_store _ _ Hst) (sw_levels _ _ Hst) I1 A1)
      as (W1 & Lv1 & X1 & I1' & L1').
    destruct (ascii_child_edge k s1 e2 c2) as [[s2 e2']|] eqn:A2; [|discriminate]. cbn [bind] in H.
    destruct (complement_if_wf _ _ slm _ _ _ _ W1 Lv1 (edge_in_ext _ _ _ X1 I2) A2)
      as (W2 & Lv2 & X2 & I2' & L2').
    rewrite (edge_level_ext (st_store st) s1) in L2' by assumption.
    destruct (mk_node k s2 level e1' e2') as [s3 r] eqn:M. inversion H; subst.
    destruct (mk_node_wf k slm s2 level e1' e2' s3 r W2 Lv2 (nth_error_In _ _ El)
                (edge_in_ext _ _ _ X2 I1') I2'
                ltac:(rewrite (edge_level_ext s1 s2) by assumption; lia) ltac:(lia) M)
      as (W3 & Lv3 & X3 & Ir & _).
    assert (X : ext (st_store st) s3) by (eapply ext_trans; [exact X1|]; eapply ext_trans; eassumption).
    splits.
    + apply (st_wf_push slm st); assumption.
    + cbn. rewrite app_length. cbn. lia.
    + exact X.
Qed.

Lemma import_ascii_loop_wf k vin slm : forall n node_id st inp st' inp',
  st_wf slm st ->
  import_ascii_loop k vin slm n node_id st inp = Ok (st', inp') ->
  st_wf slm st' /\ length (st_nodes st') = (length (st_nodes st) + n)%nat /\
  (length inp' + n <= length inp)%nat /\ ext (st_store st) (st_store st').
Proof.
  induction n as [|n IH]; intros node_id st inp st' inp' Hst H; cbn in H.
  - inversion H; subst. splits; try apply Hst; [lia|lia|apply ext_refl].
  - destruct (read_line inp) as [[line inp1]|] eqn:R; [|discriminate]. cbn [bind] in H.
    apply read_line_shorter in R.
    destruct (import_ascii_line k vin slm st node_id line) as [st1|] eqn:E; [|discriminate]. cbn [bind] in H.
    destruct (import_ascii_line_wf _ _ _ _ _ _ _ Hst E) as (W1 & L1 & X1).
    destruct (IH _ _ _ _ _ W1 H) as (W & L & I & X).
    splits; try apply W; [lia|lia|eapply ext_trans; eassumption].
Qed.

Theorem import_ascii_wf k vin slm nnodes inp st inp' :
  import_ascii k vin slm nnodes inp = Ok (st, inp') ->
  st_wf slm st /\ length (st_nodes st) = N.to_nat nnodes /\ (length inp' + N.to_nat nnodes <= length inp)%nat.
Proof.
  unfold import_ascii. intros H.
  destruct (import_ascii_loop_wf _ _ _ _ _ _ _ _ _ (st_wf_empty slm) H) as (W & L & I & _).
  splits; try apply W; [exact L|exact I].
Qed.

(** *** roots *)

Lemma import_roots_wf k slm : forall rootids st st' roots,
  st_wf slm st -> import_roots k st rootids = Ok (st', roots) ->
  st_wf slm st' /\ st_nodes st' = st_nodes st /\ ext (st_store st) (st_store st') /\
  Forall (edge_in (st_store st')) roots /\ length roots = length rootids /\
  Forall (fun r => r <> 0%Z /\ (N.to_nat (Z.abs_N r) <= length (st_nodes st))%nat) rootids.
Proof.
  induction rootids as [|r rs IH]; intros st st' roots Hst H; cbn in H.
  - inversion H; subst. splits; try apply Hst; [apply ext_refl|constructor|constructor].
  - destruct (Z.eqb_spec r 0); [discriminate|].
    destruct (nth_error (st_nodes st) (N.to_nat (Z.abs_N r - 1))) as [e|] eqn:E; [|discriminate]. cbn [bind] in H.
    assert (Ie : edge_in (st_store st) e).
    { pose proof (sw_nodes _ _ Hst) as Hn. rewrite Forall_forall in Hn. apply Hn. eapply nth_error_In. exact E. }
    match type of H with bind ?c _ = _ => destruct c as [[store e']|] eqn:C; [|discriminate] end. cbn [bind] in H.
    destruct (complement_if_wf _ _ slm _ _ _ _ (sw_store _ _ Hst) (sw_levels _ _ Hst) Ie C) as (W & L & X & Ie' & _).
    destruct (import_roots k (mkS store (st_nodes st)) rs) as [[st2 es]|] eqn:R; [|discriminate]. cbn [bind] in H.
    inversion H; subst.
    assert (Hst1 : st_wf slm (mkS store (st_nodes st))).
    { split; cbn; try assumption. eapply Forall_edge_in_ext; [exact X|apply Hst]. }
    destruct (IH _ _ _ Hst1 R) as (W2 & N2 & X2 & F2 & Len & Rng). cbn in N2, X2, Rng.
    splits; try apply W2.
    + exact N2.
    + eapply ext_trans; eassumption.
    + constructor; [eapply edge_in_ext; eassumption|exact F2].
    + cbn. lia.
    + constructor; [|exact Rng]. split; [assumption|].
      assert ((N.to_nat (Z.abs_N r - 1) < length (st_nodes st))%nat) by (apply nth_error_Some; congruence).
      lia.
Qed.

(** ** SAFETY OF ACCEPTANCE for [import] (node section + trailer + roots), on arbitrary input *)

Theorem import_file_safe k ascii vin slm nlevels nnodes rootids inp st roots :
  import_file k ascii vin slm nlevels nnodes rootids inp = Ok (st, roots) ->
  st_wf slm st /\
  length (st_nodes st) = N.to_nat nnodes /\
  Forall (edge_in (st_store st)) roots /\ length roots = length rootids /\
  Forall (fun r => r <> 0%Z /\ Z.abs_N r <= nnodes) rootids /\
  (N.to_nat nnodes <= length inp)%nat.
Proof.
  unfold import_file. intros H.
  match type of H with bind ?c _ = _ => destruct c as [[st0 rest]|] eqn:C; [|discriminate] end. cbn [bind] in H.
  destruct (negb (reads_end rest)); [discriminate|].
  assert (H0 : st_wf slm st0 /\ length (st_nodes st0) = N.to_nat nnodes /\
               (length rest + N.to_nat nnodes <= length inp)%nat).
  { destruct ascii; [eapply import_ascii_wf|eapply import_bin_wf]; exact C. }
  destruct H0 as (W0 & L0 & I0).
  destruct (import_roots_wf k slm _ _ _ _ W0 H) as (W & N1 & _ & F & Len & Rng).
  splits; try apply W; try assumption.
  - rewrite N1. exact L0.
  - eapply Forall_impl; [|exact Rng]. cbn. intros r [Hr Hl]. split; [exact Hr|]. rewrite L0 in Hl. lia.
  - lia.
Qed.

(** ** every valid edge of a well-formed table denotes a well-defined value *)

(** big-step evaluation (no fuel) *)
Inductive denotes (s : list cnode) (env : N -> bool) : cedge -> tval -> Prop :=
| DTerm e v : ce_ref e = RTerm v -> denotes s env e (if ce_tag e then tneg v else v)
| DNode e i n v : ce_ref e = RNode i -> nth_error s (N.to_nat i) = Some n ->
    denotes s env (if env (cn_level n) then cn_t n else cn_e n) v ->
    denotes s env e (if ce_tag e then tneg v else v).

Lemma eval_edge_unfold s fuel env e :
  eval_edge s fuel env e =
  let flip v := if ce_tag e then tneg v else v in
  match ce_ref e with
  | RTerm v => flip v
  | RNode i =>
    match fuel with
    | O => TNaN
    | S f => match nth_error s (N.to_nat i) with
             | None => TNaN
             | Some n => flip (eval_edge s f env (if env (cn_level n) then cn_t n else cn_e n))
             end
    end
  end.
Proof. destruct fuel; reflexivity. Qed.

Lemma denotes_det s env e v1 : denotes s env e v1 -> forall v2, denotes s env e v2 -> v1 = v2.
Proof.
  induction 1 as [e v Hr|e i n v Hr Hn Hd IH]; intros v2 H2; inversion H2; subst; try congruence.
  - replace v0 with v by congruence. reflexivity.
  - assert (i0 = i) by congruence. subst i0. assert (n0 = n) by congruence. subst n0.
    rewrite (IH _ H1). reflexivity.
Qed.

(** an edge below index [b] is evaluated with any fuel above [b]; the value is the one of the
    big-step relation *)
Lemma eval_edge_denotes s env : store_wf s ->
  forall b e fuel, ref_below b e -> (b <= length s)%nat -> (b < fuel)%nat ->
  denotes s env e (eval_edge s fuel env e).
Proof.
  intros Hwf. induction b as [|b IH]; intros e fuel Hb Hbl Hf; rewrite eval_edge_unfold; cbv zeta.
  - unfold ref_below in Hb. destruct (ce_ref e) as [v|i] eqn:Er; [|lia]. apply DTerm. exact Er.
  - unfold ref_below in Hb. destruct (ce_ref e) as [v|i] eqn:Er; [apply DTerm; exact Er|].
    destruct fuel as [|f]; [lia|].
    destruct (nth_error s (N.to_nat i)) as [n|] eqn:En.
    + destruct (Hwf _ _ En) as (R1 & R2 & _ & _).
      eapply DNode; [exact Er|exact En|].
      apply IH; [|lia|lia].
      destruct (env (cn_level n)); (eapply ref_below_mono; [|eassumption]; lia).
    + exfalso. apply nth_error_None in En. lia.
Qed.

(** well-definedness: the value exists, is unique, and is what the executable evaluation
    computes with every sufficient fuel (in particular [S (length s)], the fuel of [eval_root]) *)
Theorem edge_denotes s env e : store_wf s -> edge_in s e ->
  exists v, denotes s env e v /\ (forall v', denotes s env e v' -> v' = v) /\
            forall fuel, (length s < fuel)%nat -> eval_edge s fuel env e = v.
Proof.
  intros Hwf Hin. exists (eval_edge s (S (length s)) env e).
  assert (Hb : ref_below (length s) e) by (unfold ref_below, edge_in in *; destruct (ce_ref e); auto).
  assert (D : denotes s env e (eval_edge s (S (length s)) env e)) by (eapply eval_edge_denotes; eauto).
  splits.
  - exact D.
  - intros v' H'. eapply denotes_det; eassumption.
  - intros fuel Hf. eapply denotes_det; [|exact D]. eapply eval_edge_denotes; eauto.
Qed.

(** ZBDD semantics ([zeval_edge]: a skipped level means "variable false"): independent of the
    fuel as soon as it exceeds the table size *)
Lemma zeval_edge_fuel s env nlevels : store_wf s ->
  forall b e lo f1 f2, ref_below b e -> (b <= length s)%nat -> (b < f1)%nat -> (b < f2)%nat ->
  zeval_edge s f1 env nlevels lo e = zeval_edge s f2 env nlevels lo e.
Proof.
  intros Hwf. induction b as [|b IH]; intros e lo f1 f2 Hb Hbl H1 H2.
  - unfold ref_below in Hb. destruct f1, f2; cbn; destruct (ce_ref e); try reflexivity; lia.
  - unfold ref_below in Hb. destruct f1 as [|f1]; [lia|]. destruct f2 as [|f2]; [lia|]. cbn.
    destruct (ce_ref e) as [v|i]; [reflexivity|].
    destruct (nth_error s (N.to_nat i)) as [n|] eqn:En; [|reflexivity].
    destruct (Hwf _ _ En) as (R1 & R2 & _ & _). f_equal.
    apply IH; try lia.
    destruct (env (cn_level n)); (eapply ref_below_mono; [|eassumption]; lia).
Qed.

Theorem eval_root_fuel k s nlevels env e : store_wf s -> edge_in s e ->
  forall fuel, (length s < fuel)%nat ->
  eval_root k s nlevels env e =
  match k with
  | KZBDD => TNum (if zeval_edge s fuel env nlevels 0 e then 1 else 0)
  | _ => eval_edge s fuel env e
  end.
Proof.
  intros Hwf Hin fuel Hf.
  assert (Hb : ref_below (length s) e) by (unfold ref_below, edge_in in *; destruct (ce_ref e); auto).
  destruct (edge_denotes s env e Hwf Hin) as (v & _ & _ & Hv).
  unfold eval_root. destruct k; try (rewrite !Hv by lia; reflexivity).
  rewrite (zeval_edge_fuel s env nlevels Hwf (length s) e 0 (S (length s)) fuel) by (auto; lia).
  reflexivity.
Qed.
