(** * C15 (package C15h): the manager operations of the importer preserve the meaning

    What the importer does with the manager — reduction rule, unique table, complement-edge
    normalisation ([mk_node]) and negation ([complement]: tag flip for BCDD, [bdd_not] for BDD) —
    yields edges that denote exactly the intended function: the new node denotes
    "if the variable at [level] then [t] else [e]", a complemented edge denotes the negation.
    (The ZBDD rule is stated for the ZBDD semantics in IO/Dddmp.v [zeval_edge] and is covered by
    the correspondence run only.) *)
From Coq Require Import List NArith ZArith Bool Arith Lia.
From OxiVerif Require Import IO.Dddmp IO.DddmpProofs IO.DddmpFileSafety.
Import ListNotations.
Open Scope N_scope.


Lemma tneg_invol v : tneg (tneg v) = v.
Proof. destruct v; try reflexivity. unfold tneg. f_equal. lia. Qed.

Definition flip (e : cedge) (v : tval) : tval := if ce_tag e then tneg v else v.

Lemma denotes_term s env e u v : ce_ref e = RTerm u -> v = flip e u -> denotes s env e v.
Proof. intros H ->. apply DTerm. exact H. Qed.

Lemma denotes_node s env e i n u v : ce_ref e = RNode i -> nth_error s (N.to_nat i) = Some n ->
  denotes s env (if env (cn_level n) then cn_t n else cn_e n) u -> v = flip e u -> denotes s env e v.
Proof. intros H1 H2 H3 ->. eapply DNode; eassumption. Qed.

Lemma denotes_inv s env e v : denotes s env e v ->
  (exists u, ce_ref e = RTerm u /\ v = flip e u) \/
  (exists i n u, ce_ref e = RNode i /\ nth_error s (N.to_nat i) = Some n /\
                 denotes s env (if env (cn_level n) then cn_t n else cn_e n) u /\ v = flip e u).
Proof. destruct 1; [left|right]; eauto 10. Qed.

(** the meaning of an edge does not change when the table grows *)
Lemma denotes_ext s s' env e v : ext s s' -> denotes s env e v -> denotes s' env e v.
Proof.
  intros [x ->]. induction 1 as [e u Hr|e i n u Hr Hn Hd IH].
  - apply DTerm. exact Hr.
  - eapply DNode; [exact Hr| |exact IH]. rewrite nth_error_app1; [exact Hn|]. apply nth_error_Some. congruence.
Qed.

Lemma denotes_ext_inv s s' env e v : store_wf s -> edge_in s e -> ext s s' ->
  denotes s' env e v -> denotes s env e v.
Proof.
  intros Hwf Hin Hx H. destruct (edge_denotes s env e Hwf Hin) as (w & Hw & _ & _).
  rewrite (denotes_det _ _ _ _ H _ (denotes_ext _ _ _ _ _ Hx Hw)). exact Hw.
Qed.

(** a flipped tag negates *)
Lemma denotes_neg s env e v : denotes s env (neg e) v <-> denotes s env e (tneg v).
Proof.
  assert (Hf : forall u, flip (neg e) u = tneg (flip e u)).
  { intros u. unfold flip, neg. cbn. destruct (ce_tag e); cbn; [rewrite tneg_invol|]; reflexivity. }
  split; intros H.
  - destruct (denotes_inv _ _ _ _ H) as [(u & Hr & ->)|(i & n & u & Hr & Hn & Hd & ->)].
    + eapply denotes_term; [exact Hr|]. rewrite Hf, tneg_invol. reflexivity.
    + eapply denotes_node; [exact Hr|exact Hn|exact Hd|]. rewrite Hf, tneg_invol. reflexivity.
  - destruct (denotes_inv _ _ _ _ H) as [(u & Hr & Hv)|(i & n & u & Hr & Hn & Hd & Hv)].
    + eapply denotes_term; [exact Hr|]. rewrite Hf, <- Hv, tneg_invol. reflexivity.
    + eapply denotes_node; [exact Hr|exact Hn|exact Hd|]. rewrite Hf, <- Hv, tneg_invol. reflexivity.
Qed.

(** an untagged edge to a node equal to [mkN level t e] denotes the Shannon expansion *)
Lemma denotes_new_node s env i level t e tag v :
  nth_error s (N.to_nat i) = Some (mkN level t e) ->
  (denotes s env (mkE (RNode i) tag) v <->
   denotes s env (if env level then t else e) (if tag then tneg v else v)).
Proof.
  intros Hn. split; intros H.
  - destruct (denotes_inv _ _ _ _ H) as [(u & Hr & _)|(i0 & n & u & Hr & Hn0 & Hd & ->)]; [discriminate|].
    cbn in Hr. inversion Hr; subst i0. rewrite Hn in Hn0. inversion Hn0; subst n. cbn in Hd.
    unfold flip. cbn. destruct tag; [rewrite tneg_invol|]; exact Hd.
  - eapply denotes_node; [reflexivity|exact Hn|exact H|]. unfold flip. cbn. destruct tag; [rewrite tneg_invol|]; reflexivity.
Qed.

(** [reduce(..).then_insert(..)] of BDD, BCDD and MTBDD: the returned edge denotes
    "if x_level then t else e" *)
Theorem mk_node_denotes k slm s level t e s' r :
  k <> KZBDD ->
  store_wf s -> levels_in slm s -> In level slm ->
  edge_in s t -> edge_in s e -> level < edge_level s t -> level < edge_level s e ->
  mk_node k s level t e = (s', r) ->
  forall env v, denotes s' env r v <-> denotes s' env (if env level then t else e) v.
Proof.
  intros Hk Hwf Hl Hin It Ie Lt Le H env v.
  assert (Hadd : forall t0 e0 tag r1, find_or_add s (mkN level t0 e0) = (s', r1) ->
            (denotes s' env (mkE r1 tag) v <->
             denotes s' env (if env level then t0 else e0) (if tag then tneg v else v))).
  { intros t0 e0 tag r1 F. destruct (find_or_add_spec _ _ _ _ F) as (i & -> & Hn & _).
    apply denotes_new_node. exact Hn. }
  destruct (mk_node_cases _ _ _ _ _ _ _ H) as [->|Hz|s' r1 F|s' r1 F].
  - destruct (env level); reflexivity.
  - contradiction.
  - exact (Hadd t e false r1 F).
  - rewrite (Hadd (neg t) (neg e) true r1 F). destruct (env level); rewrite denotes_neg, tneg_invol; reflexivity.
Qed.

(** ** negation of a BDD without complement edges *)

(** BDD edges carry no tag and point to the terminals ⊥ = 0 / ⊤ = 1 *)
Definition plain_edge (e : cedge) : Prop :=
  ce_tag e = false /\ match ce_ref e with RTerm v => exists z, v = TNum z | RNode _ => True end.
Definition plain_store (s : list cnode) : Prop :=
  Forall (fun n => plain_edge (cn_t n) /\ plain_edge (cn_e n)) s.

Lemma mk_node_bdd_plain s level t e s' r :
  plain_store s -> plain_edge t -> plain_edge e -> mk_node KBDD s level t e = (s', r) ->
  plain_store s' /\ plain_edge r.
Proof.
  intros Hs Ht He H. unfold mk_node in H. destruct (cedge_eqb t e); [inversion H; subst; split; assumption|].
  destruct (find_or_add s (mkN level t e)) as [s1 r1] eqn:F. inversion H; subst.
  destruct (find_or_add_spec _ _ _ _ F) as (i & -> & _ & [->| ->]).
  - split; [exact Hs|split; [reflexivity|exact I]].
  - split; [|split; [reflexivity|exact I]]. apply Forall_app. split; [exact Hs|]. constructor; [split; assumption|constructor].
Qed.

(** [BDDFunction::not_edge_owned]: the result denotes the negation, and nothing that existed
    before changes its meaning *)
Theorem bdd_not_denotes slm : forall fuel s e s' e',
  store_wf s -> levels_in slm s -> plain_store s -> edge_in s e -> plain_edge e ->
  bdd_not s fuel e = Ok (s', e') ->
  plain_store s' /\ plain_edge e' /\
  forall env v, denotes s env e v -> denotes s' env e' (tneg v).
Proof.
  induction fuel as [|f IH]; intros s e s' e' Hwf Hl Hps Hin [Htag Hpe] H.
  - cbn in H. destruct (ce_ref e) as [[z| | |]|i] eqn:Er; try discriminate. inversion H; subst.
    splits; [exact Hps|split; [reflexivity|cbn; eauto]|].
    intros env v Hd. destruct (denotes_inv _ _ _ _ Hd) as [(u & Hr & ->)|(i0 & n & u & Hr & _)]; [|congruence].
    rewrite Er in Hr. inversion Hr; subst u. unfold flip. rewrite Htag.
    eapply denotes_term; [reflexivity|]. reflexivity.
  - cbn in H. destruct (ce_ref e) as [[z| | |]|i] eqn:Er; try discriminate.
    + inversion H; subst. splits; [exact Hps|split; [reflexivity|cbn; eauto]|].
      intros env v Hd. destruct (denotes_inv _ _ _ _ Hd) as [(u & Hr & ->)|(i0 & n & u & Hr & _)]; [|congruence].
      rewrite Er in Hr. inversion Hr; subst u. unfold flip. rewrite Htag.
      eapply denotes_term; [reflexivity|]. reflexivity.
    + destruct (nth_error s (N.to_nat i)) as [n|] eqn:En; [|discriminate].
      destruct (Hwf _ _ En) as (R1 & R2 & L1 & L2).
      assert (Hi : (N.to_nat i < length s)%nat) by (apply nth_error_Some; congruence).
      assert (I1 : edge_in s (cn_t n)) by (eapply ref_below_in; [|exact R1]; lia).
      assert (I2 : edge_in s (cn_e n)) by (eapply ref_below_in; [|exact R2]; lia).
      pose proof Hps as Hps'. unfold plain_store in Hps'. rewrite Forall_forall in Hps'.
      destruct (Hps' n (nth_error_In _ _ En)) as [P1 P2].
      destruct (bdd_not s f (cn_t n)) as [[s1 t']|] eqn:B1; [|discriminate]. cbn [bind] in H.
      destruct (IH _ _ _ _ Hwf Hl Hps I1 P1 B1) as (Ps1 & Pt' & D1).
      destruct (bdd_not_wf slm _ _ _ _ _ Hwf Hl I1 B1) as (W1 & Lv1 & X1 & It' & Lt').
      destruct (bdd_not s1 f (cn_e n)) as [[s2 e2]|] eqn:B2; [|discriminate]. cbn [bind] in H.
      destruct (IH _ _ _ _ W1 Lv1 Ps1 (edge_in_ext _ _ _ X1 I2) P2 B2) as (Ps2 & Pe2 & D2).
      destruct (bdd_not_wf slm _ _ _ _ _ W1 Lv1 (edge_in_ext _ _ _ X1 I2) B2) as (W2 & Lv2 & X2 & Ie2 & Le2).
      rewrite (edge_level_ext s s1) in Le2 by assumption.
      inversion H as [Hmk]. clear H.
      assert (Hlv : In (cn_level n) slm).
      { unfold levels_in in Hl. rewrite Forall_forall in Hl. apply Hl. eapply nth_error_In. exact En. }
      destruct (mk_node_bdd_plain _ _ _ _ _ _ Ps2 Pt' Pe2 Hmk) as [Ps' Pe'].
      pose proof (mk_node_wf KBDD slm s2 (cn_level n) t' e2 s' e' W2 Lv2 Hlv (edge_in_ext _ _ _ X2 It') Ie2
                    ltac:(rewrite (edge_level_ext s1 s2) by assumption; lia) ltac:(lia) Hmk) as (W' & _ & X' & _ & _).
      pose proof (mk_node_denotes KBDD slm s2 (cn_level n) t' e2 s' e' ltac:(discriminate) W2 Lv2 Hlv
                    (edge_in_ext _ _ _ X2 It') Ie2
                    ltac:(rewrite (edge_level_ext s1 s2) by assumption; lia) ltac:(lia) Hmk) as Hmd.
      splits; [exact Ps'|exact Pe'|].
      intros env v Hd. destruct (denotes_inv _ _ _ _ Hd) as [(u & Hr & _)|(i0 & n0 & u & Hr & Hn0 & Hd0 & ->)]; [congruence|].
      rewrite Er in Hr. inversion Hr; subst i0. rewrite En in Hn0. inversion Hn0; subst n0. unfold flip. rewrite Htag.
      apply Hmd. destruct (env (cn_level n)).
      * apply (denotes_ext s1); [eapply ext_trans; eassumption|]. apply D1. exact Hd0.
      * apply (denotes_ext s2); [exact X'|]. apply D2. apply (denotes_ext s); [exact X1|exact Hd0].
Qed.
