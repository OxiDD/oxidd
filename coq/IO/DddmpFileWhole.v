(** * C15 (package C15h): the whole DDDMP file

    - SAFETY OF ACCEPTANCE of [import_whole] on arbitrary bytes,
    - the short cut [import_whole_guarded] used by the extracted code is equivalent,
    - whole-file round trips: header + node section + [.end] written by the exporter models
      are read back by [import_whole] (binary mode: BCDD; ASCII mode: BDD, BCDD, ZBDD, MTBDD). *)
From Coq Require Import String Ascii.
From Coq Require Import List NArith ZArith Bool Arith Lia.
From OxiVerif Require Import IO.Dddmp IO.DddmpProofs IO.DddmpAsciiProofs IO.DddmpFile IO.DddmpFileProofs
  IO.DddmpFileSafety IO.DddmpFileRoundtrip.
Import ListNotations.
Open Scope N_scope.


(** ** safety of acceptance *)

(** "never builds a wrong diagram": whatever byte string [import_whole] accepts,
    - the header is well-formed ([header_wf]: ids ascending and in range, levels distinct and
      in range, counts consistent, root references non-zero and in range),
    - the unique table is well-formed: children come before their parents (acyclic), levels
      strictly increase along edges, all levels are support levels,
    - there is one valid edge per node ID of the file and one valid root edge per root ID,
    - every root denotes a well-defined function: for every assignment the value exists, is
      unique, and is what the executable evaluation computes with any sufficient fuel. *)
Theorem import_whole_safe k slm nlevels inp h st roots :
  import_whole k slm nlevels inp = WOk (h, st, roots) ->
  header_wf h /\
  length slm = length (h_ids h) /\
  st_wf slm st /\
  length (st_nodes st) = N.to_nat (h_nnodes h) /\
  Forall (edge_in (st_store st)) roots /\ length roots = length (h_rootids h) /\
  forall r, In r roots -> forall env,
    exists v, denotes (st_store st) env r v /\ (forall v', denotes (st_store st) env r v' -> v' = v) /\
              (forall fuel, (length (st_store st) < fuel)%nat -> eval_edge (st_store st) fuel env r = v).
Proof.
  unfold import_whole. destruct (load_header inp) as [[h0 rest]|e] eqn:L; [|discriminate].
  destruct (Nat.eqb_spec (length slm) (length (h_ids h0))) as [Hlen|]; cbn [negb]; [|discriminate].
  unfold import_body.
  destruct (import_file k (h_ascii h0) (varinfo_none (h_varinfo h0)) slm nlevels (h_nnodes h0) (h_rootids h0) rest)
    as [[st0 roots0]|] eqn:Ei; [|discriminate].
  intros H; inversion H; subst. clear H.
  destruct (load_header_wf _ _ _ L) as [Hwf _].
  destruct (import_file_safe _ _ _ _ _ _ _ _ _ _ Ei) as (W & Ln & F & Lr & _ & _).
  splits; try assumption.
  intros r Hr env. apply edge_denotes; [apply W|]. rewrite Forall_forall in F. apply F. exact Hr.
Qed.

(** [import_whole] never blames the caller when the caller passes one level per support variable *)
Lemma import_whole_pre k slm nlevels inp h rest :
  load_header inp = HOk (h, rest) -> length slm = length (h_ids h) -> import_whole k slm nlevels inp <> WPre.
Proof.
  intros L E. unfold import_whole. rewrite L. rewrite (proj2 (Nat.eqb_eq _ _) E). cbn [negb].
  unfold import_body. destruct (import_file _ _ _ _ _ _ _ _) as [[? ?]|]; discriminate.
Qed.

(** ** the short cut of the extracted importer *)

Definition wres_equiv {A} (a b : wres A) : Prop :=
  match a, b with
  | WOk x, WOk y => x = y
  | WHdr _, WHdr _ | WPre, WPre | WBody _, WBody _ => True
  | _, _ => False
  end.

(** same acceptance, same result; only the error value may differ *)
Theorem import_whole_guarded_equiv k slm nlevels inp :
  wres_equiv (import_whole k slm nlevels inp) (import_whole_guarded k slm nlevels inp).
Proof.
  unfold import_whole, import_whole_guarded. destruct (load_header inp) as [[h rest]|e]; [|exact I].
  destruct (negb (Nat.eqb (length slm) (length (h_ids h)))); [exact I|].
  destruct (N.ltb_spec (N.of_nat (length rest)) (h_nnodes h)) as [Hlt|Hge].
  - unfold import_body.
    destruct (import_file k (h_ascii h) (varinfo_none (h_varinfo h)) slm nlevels (h_nnodes h) (h_rootids h) rest)
      as [[st roots]|] eqn:Ei; [|exact I].
    exfalso. destruct (import_file_safe _ _ _ _ _ _ _ _ _ _ Ei) as (_ & _ & _ & _ & _ & Hn). lia.
  - unfold import_body. destruct (import_file _ _ _ _ _ _ _ _) as [[st roots]|]; [reflexivity|exact I].
Qed.

(** ** whole-file round trip, binary mode *)

Theorem import_export_whole_bin x slm nlevels l :
  xwf x -> x_ascii x = false ->
  x_nnodes x = N.of_nat (length (dag_of l)) ->
  length slm = length (x_ids x) ->
  wf_dag (N.of_nat (length slm)) l -> incr slm -> Forall (fun v => v < level_max) slm ->
  N.of_nat (length slm) < usize_limit -> N.of_nat (length l) + 1 < usize_limit ->
  import_whole KBCDD slm nlevels (export_whole_bin x (dag_of l))
  = WOk (header_of x, state_of slm l (length l),
         map (fun r => eref (Z.abs_N r) (r <? 0)%Z) (x_rootids x)).
Proof.
  intros Hx Ha Hn Hs Hwf Hi Hm L1 L2. unfold import_whole, export_whole_bin.
  rewrite (load_print_header x _ Hx).
  change (h_ids (header_of x)) with (x_ids x). rewrite (proj2 (Nat.eqb_eq _ _) Hs). cbn [negb].
  unfold import_body. change (h_ascii (header_of x)) with (x_ascii x). rewrite Ha.
  change (h_nnodes (header_of x)) with (x_nnodes x). rewrite Hn.
  change (h_rootids (header_of x)) with (x_rootids x).
  change end_line with trailer.
  rewrite import_file_export_bin; try assumption; [reflexivity..|].
  eapply Forall_impl; [|apply (xw_rootids x Hx)]. intros r (H0 & H1 & _). split; [exact H0|].
  rewrite Hn in H1. unfold dag_of in H1. cbn [length] in H1. rewrite map_length in H1. lia.
Qed.

(** ** whole-file round trip, ASCII mode *)

(** the root references of an ASCII file: a negative reference needs complement edges *)
Definition aroot_ok (k : kind) (tedges : list cedge) (l : list ainode) (r : Z) : Prop :=
  r <> 0%Z /\ Z.abs_N r <= N.of_nat (length tedges) + N.of_nat (length l) /\ ((r < 0)%Z -> k = KBCDD).

Lemma import_roots_astate k slm tedges l : forall rootids,
  Forall (aroot_ok k tedges l) rootids ->
  import_roots k (astate slm tedges l (length l)) rootids
  = Ok (astate slm tedges l (length l), map (sref tedges) rootids).
Proof.
  induction 1 as [|r rs (H0 & Hr & Hk) _ IH]; [reflexivity|]. cbn [import_roots map].
  destruct (Z.eqb_spec r 0); [contradiction|].
  change (st_nodes (astate slm tedges l (length l))) with (anodes_upto tedges (length l)).
  rewrite nth_error_anodes by lia. cbn [bind].
  assert (Hc : (if (r <? 0)%Z then complement k (st_store (astate slm tedges l (length l))) (aref tedges (Z.abs_N r))
                else Ok (st_store (astate slm tedges l (length l)), aref tedges (Z.abs_N r)))
               = Ok (st_store (astate slm tedges l (length l)), sref tedges r)).
  { unfold sref. destruct (Z.ltb_spec r 0); [|reflexivity]. rewrite (Hk H). reflexivity. }
  rewrite Hc. cbn [bind].
  change (mkS (st_store (astate slm tedges l (length l))) (anodes_upto tedges (length l)))
    with (astate slm tedges l (length l)).
  rewrite IH. reflexivity.
Qed.

Theorem import_export_whole_ascii k x slm nlevels descs tedges l :
  xwf x -> x_ascii x = true ->
  x_nnodes x = N.of_nat (length descs + length l) ->
  length slm = length (x_ids x) ->
  terms_ok k descs tedges -> Forall (fun e => exists v, ce_ref e = RTerm v) tedges ->
  incr slm -> Forall (fun v => v < level_max) slm ->
  awf_dag k slm tedges l ->
  N.of_nat (length tedges) + 1 + N.of_nat (length l) <= isize_max ->
  N.of_nat (length slm) <= 4294967296 ->
  Forall (aroot_ok k tedges l) (x_rootids x) ->
  import_whole k slm nlevels (export_whole_ascii x (map ATerm descs ++ map ainner l))
  = WOk (header_of x, astate slm tedges l (length l), map (sref tedges) (x_rootids x)).
Proof.
  intros Hx Ha Hn Hs Hto Hte Hi Hm Hwf L1 L2 Hr. unfold import_whole, export_whole_ascii.
  rewrite (load_print_header x _ Hx).
  change (h_ids (header_of x)) with (x_ids x). rewrite (proj2 (Nat.eqb_eq _ _) Hs). cbn [negb].
  unfold import_body, import_file. change (h_ascii (header_of x)) with (x_ascii x). rewrite Ha.
  change (h_nnodes (header_of x)) with (x_nnodes x). rewrite Hn.
  change (h_rootids (header_of x)) with (x_rootids x).
  change (varinfo_none (h_varinfo (header_of x))) with true.
  rewrite (import_export_ascii k slm descs tedges l) by assumption. cbn [bind].
  change (reads_end end_line) with true. cbn [negb].
  rewrite import_roots_astate by assumption. reflexivity.
Qed.

(** ** the hypotheses are satisfiable *)

(** ASCII strings are valid UTF-8 *)
Lemma utf8_lossy_ascii s : Forall (fun b => b < 128) s -> utf8_lossy s = s.
Proof.
  induction 1 as [|b s Hb _ IH]; [reflexivity|]. cbn [utf8_lossy].
  destruct (N.ltb_spec b 128); [|lia]. rewrite IH. reflexivity.
Qed.

(** names of printable ASCII characters are good names *)
Lemma good_name_ascii n : n <> [] -> Forall (fun b => 32 < b /\ b < 127) n -> good_name n.
Proof.
  intros Hne H. split; [exact Hne|split].
  - eapply Forall_impl; [|exact H]. intros b [H1 H2]. unfold is_space_or_control, is_ascii_control.
    destruct (N.ltb_spec b 32); [lia|]. destruct (N.eqb_spec b 127); [lia|]. destruct (N.eqb_spec b 32); [lia|]. reflexivity.
  - apply utf8_lossy_ascii. eapply Forall_impl; [|exact H]. cbn. intros; lia.
Qed.

(** five variables; 0, 2, 3 are in the support (levels 1, 3, 4), named a..e, three roots *)
Definition ex_x : xheader :=
  mkX true false (bs "my dd") 6 [(1, true); (0, false); (3, true); (4, true); (2, false)] [1; 0; 4; 2; 3]
      (Some [bs "a"; bs "b"; bs "c"; bs "d"; bs "e"]) [4; -5; 6]%Z (Some [bs "f"; bs "g"; bs "h"]).

Example ex_x_wf : xwf ex_x.
Proof.
  split.
  - reflexivity.
  - reflexivity.
  - repeat constructor.
  - cbn. repeat constructor; cbn; intuition discriminate.
  - reflexivity.
  - intros [|[|[|[|[|v]]]]] l s H; cbn in H; inversion H; subst; try reflexivity. destruct v; discriminate.
  - split; [reflexivity|]. repeat constructor; try discriminate; vm_compute; try reflexivity; intuition discriminate.
  - reflexivity.
  - repeat constructor; try discriminate; vm_compute; discriminate.
  - split; [reflexivity|]. repeat constructor; try discriminate; vm_compute; try reflexivity; intuition discriminate.
Qed.

Example ex_x_text :
  print_header ex_x = bs ".ver DDDMP-3.0
.mode B
.varinfo 4
.dd my dd
.nnodes 6
.nvars 5
.nsuppvars 3
.varnames a b c d e
.suppvarnames a c d
.orderedvarnames b a e c d
.ids 0 2 3
.permids 1 3 4
.nroots 3
.rootids 4 -5 6
.rootnames f g h
.nodes
".
Proof. vm_compute. reflexivity. Qed.

Example ex_x_header :
  header_of ex_x = mkH false VINone (bs "my dd") 6 5 [0; 2; 3] [0; 2; 3] [1; 3; 4] []
                       [bs "a"; bs "b"; bs "c"; bs "d"; bs "e"] [4; -5; 6]%Z [bs "f"; bs "g"; bs "h"].
Proof. vm_compute. reflexivity. Qed.

(** the whole-file theorem applies to a concrete file (and agrees with plain computation) *)
Example ex_whole_bin :
  import_whole KBCDD [1; 4; 5] 6 (export_whole_bin ex_x (dag_of ex_dag))
  = WOk (header_of ex_x, state_of [1; 4; 5] ex_dag 5, [eref 4 false; eref 5 true; eref 6 false]).
Proof.
  apply (import_export_whole_bin ex_x [1; 4; 5] 6 ex_dag); try reflexivity.
  - exact ex_x_wf.
  - exact ex_dag_wf.
  - exact ex_slm_incr.
  - repeat constructor.
Qed.

Example ex_whole_bin_computed :
  import_whole KBCDD [1; 4; 5] 6 (export_whole_bin ex_x (dag_of ex_dag))
  = WOk (header_of ex_x, state_of [1; 4; 5] ex_dag 5, [eref 4 false; eref 5 true; eref 6 false]).
Proof. vm_compute. reflexivity. Qed.

(** malformed inputs are rejected by values, e.g. a truncated file, a level that occurs twice,
    a root reference beyond [.nnodes] *)
Example ex_rejects :
  import_whole KBCDD [1; 4; 5] 6 (firstn 23 (export_whole_bin ex_x (dag_of ex_dag))) = WHdr HEof /\
  load_header (bs ".nvars 3
.nsuppvars 2
.ids 0 1
.permids 2 2
.nodes
") = HErr HPermDup /\
  load_header (bs ".nnodes 2
.nroots 1
.rootids -3
.nodes
") = HErr HRootRange.
Proof. vm_compute. repeat split. Qed.

Lemma fill_names_length : forall v pool r, fill_names v pool = HOk r -> length r = length v.
Proof.
  induction v as [|a v IH]; intros pool r H; cbn in H; [inversion H; reflexivity|].
  destruct a.
  - destruct pool; [discriminate|]. apply hmap_ok in H. destruct H as (r' & H & ->). cbn. f_equal. eapply IH; exact H.
  - apply hmap_ok in H. destruct H as (r' & H & ->). cbn. f_equal. eapply IH; exact H.
Qed.

Lemma take_names_length : forall pairs v o v' o', take_names pairs v o = HOk (v', o') -> length v' = length v.
Proof.
  induction pairs as [|[id pm] pairs IH]; intros v o v' o' H; cbn [take_names] in H; [inversion H; reflexivity|].
  apply hbind_ok in H. destruct H as (name & _ & H).
  destruct (set_nth (N.to_nat pm) [] o) as [o1|]; [|discriminate].
  destruct (set_nth (N.to_nat id) name v) as [v1|] eqn:Ev; [|discriminate].
  rewrite (IH _ _ _ _ H). apply (set_nth_spec _ _ _ _ Ev).
Qed.

(** format 2.0: the names of the support variables are recovered exactly *)
Theorem recover_names_support x names : xwf x -> x_names x = Some names -> x_ver3 x = false ->
  h_varnames (header_of x) = recover_names x names /\
  len (recover_names x names) = x_nvars x /\
  forall id pm, In (id, pm) (x_supp x) ->
    nth_error (recover_names x names) (N.to_nat id) = Some (name_of names id).
Proof.
  intros Hx En Ev.
  assert (Hh : h_varnames (header_of x) = recover_names x names).
  { unfold header_of. cbn [h_varnames]. rewrite En, Ev. reflexivity. }
  split; [exact Hh|].
  pose proof (var_names_block_print x Hx) as Hb. rewrite Hh in Hb.
  unfold st_of in Hb. cbn [s_varnames s_suppnames s_ordered] in Hb. rewrite En, Ev in Hb.
  set (R := recover_names x names) in *.
  pose proof (xw_names x Hx) as Hn. rewrite En in Hn. destruct Hn as [Hlen Hgood].
  pose proof (xw_l2v_len x Hx) as Hl.
  unfold var_names_block in Hb. cbn [is_nil] in Hb.
  destruct (is_nil (map (name_of names) (x_l2v x))) eqn:Eo.
  - (* no variables *)
    assert (E1 : x_l2v x = []) by (destruct (x_l2v x); [reflexivity|discriminate]).
    rewrite E1 in Hl. cbn in Hl.
    assert (E2 : x_vars x = []) by (unfold x_nvars, len in Hl; destruct (x_vars x); [reflexivity|cbn in Hl; lia]).
    unfold x_ids, x_supp in Hb |- *. rewrite E2 in Hb |- *. cbn in Hb. inversion Hb as [Hr].
    split; [unfold x_nvars; rewrite E2; reflexivity|intros ? ? []].
  - apply hbind_ok in Hb. destruct Hb as ([v1 o1] & Ht & Hb).
    apply hbind_ok in Hb. destruct Hb as (r & Hf & Hb).
    apply hbind_ok in Hb. destruct Hb as (_ & _ & Hb). inversion Hb as [Hr]. clear Hb.
    assert (N1 : NoDup (map fst (combine (x_ids x) (x_permids x)))).
    { rewrite x_supp_combine. apply incr_NoDup. apply sorted_strict_incr. apply supp_from_sorted. }
    assert (N2 : NoDup (map snd (combine (x_ids x) (x_permids x)))).
    { rewrite x_supp_combine. apply supp_from_levels_nodup. apply Hx. }
    destruct (take_names_content _ _ _ _ _ Ht N1 N2) as [Hc _].
    rewrite <- Hr. split.
    + unfold len. rewrite (fill_names_length _ _ _ Hf), (take_names_length _ _ _ _ _ Ht), repeat_length. lia.
    + intros id pm Hp.
      eapply fill_names_content; [exact Hf| |].
      * rewrite (Hc id pm) by (rewrite x_supp_combine; exact Hp).
        destruct (supp_l2v x Hx id pm Hp) as (H1 & _ & _). rewrite nth_error_map, H1. reflexivity.
      * destruct (supp_l2v x Hx id pm Hp) as (_ & H2 & _).
        apply (name_of_good names id Hgood). unfold len in Hlen. lia.
Qed.
