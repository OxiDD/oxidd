(** * C15 proofs about the model coq/IO/Dddmp.v

    (a) 7-bit integers, (b) escaping, (c) node codes and the binary node
    section: the importer reads back what the exporter wrote, (d) names. *)
From Coq Require Import String Ascii.
From Coq Require Import List NArith ZArith Bool Arith Lia.
From OxiVerif Require Import Base.ListFacts IO.Dddmp.
Import ListNotations.
Open Scope N_scope.

Arguments N.add : simpl never.
Arguments N.sub : simpl never.
Arguments N.mul : simpl never.
Arguments N.div : simpl never.
Arguments N.modulo : simpl never.
Arguments N.pow : simpl never.

Ltac splits := repeat match goal with |- _ /\ _ => split end; try exact eq_refl; try exact I.

(** ** (b) escaping *)

Lemma escape_app a b : escape (a ++ b) = escape a ++ escape b.
Proof. apply flat_map_app. Qed.

Lemma escape_cons b l : escape (b :: l) = escape_byte b ++ escape l.
Proof. reflexivity. Qed.

Lemma escape_one b : escape [b] = escape_byte b.
Proof. unfold escape. cbn [flat_map]. apply app_nil_r. Qed.

Ltac esc_cases b :=
  unfold escape_byte;
  destruct (N.eqb_spec b 0) as [->|H0]; [|
  destruct (N.eqb_spec b 10) as [->|H10]; [|
  destruct (N.eqb_spec b 13) as [->|H13]; [|
  destruct (N.eqb_spec b 26) as [->|H26]]]].

Theorem read_unescape_escape : forall b rest,
  read_unescape (escape_byte b ++ rest) = Ok (b, rest).
Proof.
  intros b rest. esc_cases b; try reflexivity.
  cbn [app read_unescape]. destruct (N.eqb_spec b 0); [contradiction|reflexivity].
Qed.

Theorem unescape_escape : forall bs, unescape_all (escape bs) = Ok bs.
Proof.
  induction bs as [|b bs IH]; [reflexivity|].
  rewrite escape_cons.
  esc_cases b; cbn [app unescape_all N.eqb unescape_code]; try (rewrite IH; reflexivity).
  destruct (N.eqb_spec b 0); [contradiction|]. rewrite IH. reflexivity.
Qed.

(** the escaped stream never contains the bytes the format reserves *)
Theorem escape_no_reserved : forall bs, Forall (fun b => b < 256) bs ->
  Forall (fun b => b <> 10 /\ b <> 13 /\ b <> 26) (escape bs).
Proof.
  induction bs as [|b bs IH]; intros H; [constructor|].
  inversion H; subst. rewrite escape_cons. apply Forall_app. split; [|auto].
  esc_cases b; repeat constructor; try lia; auto.
Qed.

(** ** (a) 7-bit integers *)

Lemma dec7_escape_cons : forall acc b tl,
  dec7 acc (escape_byte b ++ tl) =
  match dec7_step acc b with
  | Err e => Err e
  | Ok (acc', true) => Ok (acc', tl)
  | Ok (acc', false) => dec7 acc' tl
  end.
Proof.
  intros acc b tl. esc_cases b; try reflexivity.
  cbn [app dec7]. destruct (N.eqb_spec b 0); [contradiction|reflexivity].
Qed.

Lemma shl7_limit_eq : shl7_limit = 2 ^ 57.
Proof. reflexivity. Qed.
Lemma usize_limit_eq : usize_limit = 2 ^ 64.
Proof. reflexivity. Qed.

(** a byte of the encoder: seven bits of [w] and the continuation bit [c] *)
Lemma dec7_step_digit w c : w / 128 < shl7_limit -> c < 2 ->
  dec7_step (w / 128) (w mod 128 * 2 + c) = Ok (w, c =? 0).
Proof.
  intros Hw Hc. unfold dec7_step. destruct (N.leb_spec shl7_limit (w / 128)); [lia|].
  rewrite N.div_add_l, (N.div_small c 2), N.add_0_r by (exact Hc || discriminate).
  rewrite (N.add_comm (w mod 128 * 2)), N.mod_add, (N.mod_small c 2) by (exact Hc || discriminate).
  rewrite (N.mul_comm (w / 128)), <- N.div_mod'. reflexivity.
Qed.

Lemma dec7_hi : forall f w tl,
  w < 128 ^ (N.of_nat f) -> w < shl7_limit ->
  dec7 0 (escape (enc7_hi f w) ++ tl) = dec7 w tl.
Proof.
  induction f as [|f IH]; intros w tl Hf Hw.
  - cbn in Hf. assert (w = 0) by lia. subst. reflexivity.
  - cbn [enc7_hi]. destruct (N.eqb_spec w 0) as [->|Hne]; [reflexivity|].
    rewrite escape_app, <- app_assoc, escape_one.
    assert (Hdiv : w / 128 < 128 ^ N.of_nat f).
    { apply N.div_lt_upper_bound; [lia|].
      rewrite Nat2N.inj_succ, N.pow_succ_r' in Hf. lia. }
    assert (Hle : w / 128 <= w) by (apply N.div_le_upper_bound; lia).
    rewrite IH by lia.
    rewrite dec7_escape_cons, dec7_step_digit by lia. reflexivity.
Qed.

Lemma size_pow128 v : v / 128 < 128 ^ N.of_nat (N.to_nat (N.size v)).
Proof.
  rewrite N2Nat.id.
  destruct (N.eq_dec v 0) as [->|Hne]; [reflexivity|].
  assert (H1 : v < 2 ^ N.size v) by apply N.size_gt.
  assert (H2 : 2 ^ N.size v <= 128 ^ N.size v) by (apply N.pow_le_mono_l; lia).
  assert (v / 128 <= v) by (apply N.div_le_upper_bound; lia). lia.
Qed.

(** [decode_7bit] reads back what [encode_7bit] wrote (usize = 64 bit) *)
Theorem decode_encode_7bit : forall v rest, v < usize_limit ->
  decode_7bit (encode_7bit v ++ rest) = Ok (v, rest).
Proof.
  intros v rest Hv. unfold decode_7bit, encode_7bit, encode_7bit_raw.
  rewrite escape_app, <- app_assoc, escape_one.
  assert (Hd : v / 128 < shl7_limit).
  { rewrite shl7_limit_eq. apply N.div_lt_upper_bound; [lia|].
    rewrite usize_limit_eq in Hv. change (128 * 2 ^ 57) with (2 ^ 64). exact Hv. }
  rewrite dec7_hi; [|apply size_pow128|exact Hd].
  rewrite dec7_escape_cons, <- (N.add_0_r (v mod 128 * 2)), dec7_step_digit by lia. reflexivity.
Qed.

(** the decoder is the one with the overflow check: a value >= 2^64 is an error, never a
    wrapped number *)
Lemma dec7_step_bound : forall acc b acc' fin, b < 256 ->
  dec7_step acc b = Ok (acc', fin) -> acc < shl7_limit /\ acc' < usize_limit /\ acc' = acc * 128 + b / 2.
Proof.
  intros acc b acc' fin Hb H. unfold dec7_step in H.
  destruct (N.leb_spec shl7_limit acc); [discriminate|]. inversion H; subst.
  assert (b / 2 < 128) by (apply N.div_lt_upper_bound; lia).
  rewrite shl7_limit_eq in *. rewrite usize_limit_eq. change (2 ^ 64) with (2 ^ 57 * 128). lia.
Qed.

(** ** (c) node code byte *)

Theorem split_node_code_roundtrip : forall v t c e,
  split_node_code (node_code v t c e) = (v, t, c, e).
Proof. intros [] [] [] []; reflexivity. Qed.

Lemma node_code_lt_256 : forall v t c e, node_code v t c e < 256.
Proof. intros [] [] [] []; reflexivity. Qed.

(** ** (c) the binary node section *)

(** *** diagrams as the exporter numbers them

    The binary exporter writes the single terminal first (node ID 1) and then the inner
    nodes bottom-up, level by level.  [l] lists the inner nodes in this order: entry [j]
    has node ID [j + 2]. *)
Record inode := mkI { iv : N; it : N; ie : N; ic : bool }.

Definition xi (nd : inode) : xnode := XInner (iv nd) (it nd) (ie nd) (ic nd).
Definition dag_of (l : list inode) : list xnode := XTerm :: map xi l.

(** child reference [ch] of entry [j] with variable index [v]: a smaller node ID, and a
    variable below [v] if the child is an inner node *)
Definition child_ok (l : list inode) (j : nat) (v ch : N) : Prop :=
  1 <= ch /\ ch < N.of_nat j + 2 /\
  (ch <> 1 -> exists nd', nth_error l (N.to_nat (ch - 2)) = Some nd' /\ v < iv nd').

Definition wf_at (nsupp : N) (l : list inode) (j : nat) (nd : inode) : Prop :=
  iv nd < nsupp /\ child_ok l j (iv nd) (it nd) /\ child_ok l j (iv nd) (ie nd) /\
  ~ (it nd = ie nd /\ ic nd = false).

(** reduced (no node with two equal children), no duplicate nodes, children first, ordered *)
Definition wf_dag (nsupp : N) (l : list inode) : Prop :=
  NoDup l /\ forall j nd, nth_error l j = Some nd -> wf_at nsupp l j nd.

(** [suppvar_level_map]: strictly increasing levels *)
Definition incr (slm : list N) : Prop :=
  forall i j a b, nth_error slm i = Some a -> nth_error slm j = Some b -> (i < j)%nat -> a < b.

(** *** what the importer is expected to build *)

Definition lvl (slm : list N) (v : N) : N := nth (N.to_nat v) slm 0.

Definition eref (id : N) (tag : bool) : cedge :=
  if id =? 1 then mkE (RTerm (TNum 1)) tag else mkE (RNode (id - 2)) tag.

Definition cn_of (slm : list N) (nd : inode) : cnode :=
  mkN (lvl slm (iv nd)) (eref (it nd) false) (eref (ie nd) (ic nd)).

Definition nodes_upto (j : nat) : list cedge :=
  mkE (RTerm (TNum 1)) false :: map (fun i => mkE (RNode (N.of_nat i)) false) (seq 0 j).

(** state of the importer after the terminal and the first [j] inner nodes *)
Definition state_of (slm : list N) (l : list inode) (j : nat) : ist :=
  mkS (map (cn_of slm) (firstn j l)) (nodes_upto j).

(** *** list helpers *)

Lemma firstn_snoc {A} (l : list A) j x :
  nth_error l j = Some x -> firstn (S j) l = firstn j l ++ [x].
Proof.
  revert j; induction l as [|a l IH]; intros [|j] H; cbn in *; try discriminate.
  - inversion H; reflexivity.
  - rewrite (IH j H). reflexivity.
Qed.

Lemma take_line_app : forall inp l r, take_line inp = (l, r) -> inp = l ++ r.
Proof.
  induction inp as [|b inp IH]; intros l r H; cbn in H.
  - inversion H; reflexivity.
  - destruct (b =? 10); [inversion H; reflexivity|].
    destruct (take_line inp) as [l1 r1]. inversion H; subst. cbn. f_equal. apply IH. reflexivity.
Qed.

Lemma read_line_suffix inp l r : read_line inp = Ok (l, r) ->
  exists pre, inp = pre ++ r /\ pre <> [].
Proof.
  unfold read_line. destruct inp as [|b inp]; [discriminate|].
  destruct (take_line (b :: inp)) as [l1 r1] eqn:E. intros H; inversion H; subst.
  exists l1. split; [apply take_line_app; exact E|].
  cbn in E. destruct (b =? 10); [inversion E; discriminate|]. destruct (take_line inp). inversion E; discriminate.
Qed.

Lemma read_line_shorter inp l r : read_line inp = Ok (l, r) -> (length r < length inp)%nat.
Proof.
  intros H. destruct (read_line_suffix _ _ _ H) as (pre & -> & Hne).
  rewrite app_length. destruct pre; [contradiction|cbn; lia].
Qed.

Lemma nodes_upto_S j : nodes_upto (S j) = nodes_upto j ++ [mkE (RNode (N.of_nat j)) false].
Proof. unfold nodes_upto. rewrite seq_S, map_app. reflexivity. Qed.

Lemma nodes_upto_length j : length (nodes_upto j) = S j.
Proof. unfold nodes_upto. cbn. rewrite map_length, seq_length. reflexivity. Qed.

Lemma nth_error_nodes_upto j ch : 1 <= ch -> ch < N.of_nat j + 2 ->
  nth_error (nodes_upto j) (N.to_nat (ch - 1)) = Some (eref ch false).
Proof.
  intros H1 H2. unfold nodes_upto, eref.
  destruct (N.eqb_spec ch 1) as [->|Hne]; [reflexivity|].
  replace (N.to_nat (ch - 1)) with (S (N.to_nat (ch - 2))) by lia.
  cbn [nth_error]. rewrite nth_error_map.
  rewrite nth_error_nth' with (d := O) by (rewrite seq_length; lia).
  rewrite seq_nth by lia. cbn. rewrite N2Nat.id. reflexivity.
Qed.

Lemma node_at_state slm l j ch : 1 <= ch -> ch < N.of_nat j + 2 ->
  node_at (state_of slm l j) (ch - 1) = Ok (eref ch false).
Proof.
  intros. unfold node_at, state_of. cbn [st_nodes].
  rewrite nth_error_nodes_upto by assumption. reflexivity.
Qed.

(** *** the exporter's view of the diagram *)

Lemma xvar_dag l ch : 1 <= ch ->
  xvar (dag_of l) ch = if ch =? 1 then None else option_map iv (nth_error l (N.to_nat (ch - 2))).
Proof.
  intros H. unfold xvar, xnth, dag_of.
  destruct (N.eqb_spec ch 0); [lia|].
  destruct (N.eqb_spec ch 1) as [->|Hne]; [reflexivity|].
  replace (N.to_nat (ch - 1)) with (S (N.to_nat (ch - 2))) by lia.
  cbn [nth_error]. rewrite nth_error_map.
  destruct (nth_error l (N.to_nat (ch - 2))); reflexivity.
Qed.

Lemma xvar_child l j v ch : child_ok l j v ch ->
  (ch = 1 /\ xvar (dag_of l) ch = None) \/
  (ch <> 1 /\ exists nd', nth_error l (N.to_nat (ch - 2)) = Some nd' /\ v < iv nd' /\
              xvar (dag_of l) ch = Some (iv nd')).
Proof.
  intros (H1 & H2 & H3). rewrite xvar_dag by assumption.
  destruct (N.eqb_spec ch 1) as [->|Hne]; [left; auto|].
  right. split; [assumption|]. destruct (H3 Hne) as (nd' & Hn & Hv).
  exists nd'. rewrite Hn. auto.
Qed.

(** *** then/else references *)

Lemma opt_arg_decode c x rest : x < usize_limit ->
  (if has_arg c then decode_7bit (opt_arg c x ++ rest) else Ok (1, opt_arg c x ++ rest)) =
  Ok ((if has_arg c then x else 1), rest).
Proof.
  intros Hx. unfold opt_arg. destruct (has_arg c).
  - apply decode_encode_7bit; assumption.
  - reflexivity.
Qed.

Theorem idx_ref_bin_idx : forall l j v ch node_id rest,
  node_id = N.of_nat j + 2 -> node_id < usize_limit -> child_ok l j v ch ->
  let '(c, x) := bin_idx (dag_of l) node_id ch in
  idx_ref (opt_arg c x ++ rest) node_id c = Ok (ch - 1, rest).
Proof.
  intros l j v ch node_id rest Hid Hlim Hc.
  pose proof Hc as (H1 & H2 & _).
  assert (Hchk : forall inp : list byte, (if ch =? 0 then Err EIdZero else if node_id <=? ch then Err EIdLarge
                              else Ok (ch - 1, inp)) = Ok (ch - 1, inp)).
  { intros inp. destruct (N.eqb_spec ch 0); [lia|]. destruct (N.leb_spec node_id ch); [lia|]. reflexivity. }
  unfold bin_idx.
  destruct (xvar_child _ _ _ _ Hc) as [[-> Hx]|(Hne & nd' & _ & _ & Hx)]; rewrite Hx; [exact (Hchk rest)|].
  destruct (N.eqb_spec ch (node_id - 1)) as [->|Hn1]; [exact (Hchk rest)|].
  destruct (N.ltb_spec (node_id - ch) ch); unfold idx_ref, opt_arg, bind; cbn [has_arg];
    rewrite decode_encode_7bit by lia; [|apply Hchk].
  destruct (N.ltb_spec node_id (node_id - ch)); [lia|].
  replace (node_id - (node_id - ch)) with ch by lia. apply Hchk.
Qed.

(** *** levels *)

Definition olevel (slm : list N) (o : option N) : N :=
  match o with None => level_max | Some x => lvl slm x end.

Lemma lvl_nth_error slm v : v < N.of_nat (length slm) ->
  nth_error slm (N.to_nat v) = Some (lvl slm v).
Proof. intros H. unfold lvl. apply nth_error_nth'. lia. Qed.

Lemma lvl_lt slm a b : incr slm -> a < b -> b < N.of_nat (length slm) -> lvl slm a < lvl slm b.
Proof.
  intros Hi Hab Hb. apply (Hi (N.to_nat a) (N.to_nat b)); try (apply lvl_nth_error; lia). lia.
Qed.

Lemma lvl_lt_max slm v : Forall (fun x => x < level_max) slm -> v < N.of_nat (length slm) ->
  lvl slm v < level_max.
Proof.
  intros Hf Hv. rewrite Forall_forall in Hf. apply Hf.
  apply nth_error_In with (n := N.to_nat v). apply lvl_nth_error. assumption.
Qed.

Lemma find_index_shift {A} (p : A -> bool) l i :
  find_index p l i = option_map (N.add i) (find_index p l 0).
Proof.
  revert i; induction l as [|x l IH]; intros i; cbn; [reflexivity|].
  destruct (p x); [cbn; f_equal; lia|].
  rewrite (IH (i + 1)), (IH (0 + 1)).
  destruct (find_index p l 0); cbn; [f_equal; lia|reflexivity].
Qed.

Lemma find_index_first {A} (p : A -> bool) l k y :
  nth_error l k = Some y -> p y = true ->
  (forall i z, (i < k)%nat -> nth_error l i = Some z -> p z = false) ->
  find_index p l 0 = Some (N.of_nat k).
Proof.
  revert k; induction l as [|x l IH]; intros [|k] Hn Hp Hlt; cbn in *; try discriminate.
  - inversion Hn; subst. rewrite Hp. reflexivity.
  - rewrite (Hlt O x) by (try lia; reflexivity).
    rewrite find_index_shift, (IH k Hn Hp).
    + cbn. f_equal. lia.
    + intros i z Hi Hz. apply (Hlt (S i) z); [lia|exact Hz].
Qed.

Lemma find_index_none {A} (p : A -> bool) l i :
  (forall x, In x l -> p x = false) -> find_index p l i = None.
Proof.
  revert i; induction l as [|x l IH]; intros i H; cbn; [reflexivity|].
  rewrite (H x) by (left; reflexivity). apply IH. intros y Hy. apply H. right. exact Hy.
Qed.

Lemma lsm_lookup_lvl slm v : incr slm -> v < N.of_nat (length slm) ->
  lsm_lookup slm (lvl slm v) = Ok v.
Proof.
  intros Hi Hv. unfold lsm_lookup.
  rewrite (find_index_first _ slm (N.to_nat v) (lvl slm v)).
  - rewrite N2Nat.id. reflexivity.
  - apply lvl_nth_error; assumption.
  - apply N.eqb_refl.
  - intros i z Hlt Hz. apply N.eqb_neq.
    pose proof (Hi i (N.to_nat v) z (lvl slm v) Hz (lvl_nth_error _ _ Hv) Hlt). lia.
Qed.

Lemma olevel_min slm a b : incr slm -> Forall (fun x => x < level_max) slm ->
  (forall x, a = Some x -> x < N.of_nat (length slm)) ->
  (forall x, b = Some x -> x < N.of_nat (length slm)) ->
  N.min (olevel slm a) (olevel slm b) = olevel slm (min_opt a b).
Proof.
  intros Hi Hf Ha Hb. destruct a as [x|], b as [y|]; cbn [olevel min_opt].
  - pose proof (Ha x eq_refl). pose proof (Hb y eq_refl).
    destruct (N.lt_trichotomy x y) as [Hxy|[->|Hxy]].
    + pose proof (lvl_lt slm x y Hi Hxy ltac:(assumption)). rewrite !N.min_l by lia. reflexivity.
    + rewrite !N.min_id. reflexivity.
    + pose proof (lvl_lt slm y x Hi Hxy ltac:(assumption)). rewrite !N.min_r by lia. reflexivity.
  - pose proof (lvl_lt_max slm x Hf (Ha x eq_refl)). apply N.min_l. lia.
  - pose proof (lvl_lt_max slm y Hf (Hb y eq_refl)). apply N.min_r. lia.
  - apply N.min_id.
Qed.

(** level of the edge stored for node ID [ch] = level of the variable the exporter sees *)
Lemma edge_level_state slm l j ch tag : 1 <= ch -> ch < N.of_nat j + 2 -> (j <= length l)%nat ->
  edge_level (st_store (state_of slm l j)) (eref ch tag) = olevel slm (xvar (dag_of l) ch).
Proof.
  intros H1 H2 Hj. rewrite xvar_dag by assumption. unfold eref, edge_level, state_of. cbn [st_store].
  destruct (N.eqb_spec ch 1) as [->|Hne]; [reflexivity|]. cbn [ce_ref].
  rewrite nth_error_map, nth_error_firstn by lia.
  destruct (nth_error l (N.to_nat (ch - 2))) as [nd'|] eqn:E; [reflexivity|].
  apply nth_error_None in E. lia.
Qed.

(** *** the variable code *)

Notation final_vid := resolve_vid.

Lemma min_opt_some a b m : min_opt a b = Some m ->
  (a = Some m \/ b = Some m) /\ (forall x, a = Some x -> m <= x) /\ (forall x, b = Some x -> m <= x).
Proof.
  destruct a as [x|], b as [y|]; cbn; intros H; inversion H; subst.
  - split; [|split; intros z Hz; inversion Hz; subst; lia].
    destruct (N.min_spec x y) as [[_ ->]|[_ ->]]; auto.
  - split; [auto|split; intros z Hz; inversion Hz; subst; lia].
  - split; [auto|split; intros z Hz; inversion Hz; subst; lia].
Qed.

Theorem var_code_decode : forall slm nlevels l v t e,
  incr slm -> Forall (fun x => x < level_max) slm ->
  v < N.of_nat (length slm) -> N.of_nat (length slm) < usize_limit ->
  (forall x, xvar (dag_of l) t = Some x -> v < x /\ x < N.of_nat (length slm)) ->
  (forall x, xvar (dag_of l) e = Some x -> v < x /\ x < N.of_nat (length slm)) ->
  let '(vc, vx) := var_code (dag_of l) v t e in
  vc <> CTerminal /\ vx < usize_limit /\
  final_vid slm nlevels vc (if has_arg vc then vx else 1)
            (olevel slm (xvar (dag_of l) t)) (olevel slm (xvar (dag_of l) e)) = Ok v.
Proof.
  intros slm nlevels l v t e Hi Hf Hv Hlim Ht He.
  unfold var_code.
  destruct (min_opt (xvar (dag_of l) t) (xvar (dag_of l) e)) as [mv|] eqn:Em.
  - destruct (min_opt_some _ _ _ Em) as (Hsrc & _ & _).
    assert (Hmv : v < mv /\ mv < N.of_nat (length slm)) by (destruct Hsrc as [H|H]; [apply Ht|apply He]; exact H).
    assert (Hmin : N.min (olevel slm (xvar (dag_of l) t)) (olevel slm (xvar (dag_of l) e)) = lvl slm mv).
    { rewrite olevel_min; try assumption.
      - rewrite Em. reflexivity.
      - intros x Hx. apply Ht. exact Hx.
      - intros x Hx. apply He. exact Hx. }
    pose proof (lvl_lt_max slm mv Hf (proj2 Hmv)) as Hlm.
    destruct (N.eqb_spec v (mv - 1)) as [Hv1|Hv1].
    + split; [discriminate|]. split; [lia|]. cbn [has_arg]. unfold resolve_vid. rewrite Hmin.
      destruct (N.eqb_spec (lvl slm mv) level_max); [lia|].
      rewrite lsm_lookup_lvl by (try assumption; lia). cbn [bind].
      destruct (N.ltb_spec mv 1); [lia|]. f_equal. lia.
    + destruct (N.ltb_spec (mv - v) v).
      * split; [discriminate|]. split; [lia|]. cbn [has_arg]. unfold resolve_vid. rewrite Hmin.
        destruct (N.eqb_spec (lvl slm mv) level_max); [lia|].
        rewrite lsm_lookup_lvl by (try assumption; lia). cbn [bind].
        destruct (N.ltb_spec mv (mv - v)); [lia|]. f_equal. lia.
      * split; [discriminate|]. split; [lia|]. cbn [has_arg]. unfold resolve_vid.
        destruct (N.leb_spec (N.of_nat (length slm)) v); [lia|]. reflexivity.
  - split; [discriminate|]. split; [lia|]. cbn [has_arg]. unfold resolve_vid.
    destruct (N.leb_spec (N.of_nat (length slm)) v); [lia|]. reflexivity.
Qed.

(** *** the unique table *)

Lemma tval_eqb_eq a b : tval_eqb a b = true -> a = b.
Proof. destruct a, b; cbn; intros H; try discriminate; try reflexivity. apply Z.eqb_eq in H. congruence. Qed.

Lemma cref_eqb_eq a b : cref_eqb a b = true -> a = b.
Proof.
  destruct a, b; cbn; intros H; try discriminate.
  - apply tval_eqb_eq in H. congruence.
  - apply N.eqb_eq in H. congruence.
Qed.

Lemma cedge_eqb_eq a b : cedge_eqb a b = true -> a = b.
Proof.
  destruct a as [ra ta], b as [rb tb]. unfold cedge_eqb. cbn [ce_ref ce_tag]. intros H.
  apply andb_prop in H. destruct H as [H1 H2]. apply cref_eqb_eq in H1. apply eqb_prop in H2. congruence.
Qed.

Lemma cnode_eqb_eq a b : cnode_eqb a b = true -> a = b.
Proof.
  destruct a as [la ta ea], b as [lb tb eb]. unfold cnode_eqb. cbn [cn_level cn_t cn_e]. intros H.
  apply andb_prop in H. destruct H as [H H3]. apply andb_prop in H. destruct H as [H1 H2].
  apply N.eqb_eq in H1. apply cedge_eqb_eq in H2. apply cedge_eqb_eq in H3. congruence.
Qed.

Lemma eref_inj a b ta tb : 1 <= a -> 1 <= b -> eref a ta = eref b tb -> a = b /\ ta = tb.
Proof.
  unfold eref. intros Ha Hb.
  destruct (N.eqb_spec a 1), (N.eqb_spec b 1); intros H; inversion H; subst; split; try reflexivity; lia.
Qed.

Lemma cn_of_inj slm a b : incr slm ->
  iv a < N.of_nat (length slm) -> iv b < N.of_nat (length slm) ->
  1 <= it a -> 1 <= it b -> 1 <= ie a -> 1 <= ie b ->
  cn_of slm a = cn_of slm b -> a = b.
Proof.
  intros Hi Ha Hb Hta Htb Hea Heb H. unfold cn_of in H. inversion H as [[Hl Ht He]].
  apply eref_inj in Ht; [|assumption..]. apply eref_inj in He; [|assumption..].
  assert (iv a = iv b).
  { destruct (N.lt_trichotomy (iv a) (iv b)) as [Hlt|[Heq|Hlt]]; [|exact Heq|].
    - pose proof (lvl_lt slm _ _ Hi Hlt Hb). lia.
    - pose proof (lvl_lt slm _ _ Hi Hlt Ha). lia. }
  destruct a, b; cbn in *. destruct Ht, He. congruence.
Qed.

Lemma find_or_add_fresh store n :
  (forall x, In x store -> x <> n) ->
  find_or_add store n = (store ++ [n], RNode (N.of_nat (length store))).
Proof.
  intros H. unfold find_or_add. rewrite find_index_none; [reflexivity|].
  intros x Hx. destruct (cnode_eqb n x) eqn:E; [|reflexivity].
  apply cnode_eqb_eq in E. exfalso. apply (H x Hx). congruence.
Qed.

(** on a reduced node with an uncomplemented then-edge whose triple is new, all rule
    sets insert exactly this node *)
Lemma mk_node_fresh k store level t e :
  k = KBCDD -> t <> e -> ce_tag t = false ->
  (forall x, In x store -> x <> mkN level t e) ->
  mk_node k store level t e = (store ++ [mkN level t e], mkE (RNode (N.of_nat (length store))) false).
Proof.
  intros Hk Hne Htag Hnew.
  assert (Heq : cedge_eqb t e = false).
  { destruct (cedge_eqb t e) eqn:E; [|reflexivity]. apply cedge_eqb_eq in E. contradiction. }
  subst k. unfold mk_node. rewrite Heq, Htag, find_or_add_fresh by assumption. reflexivity.
Qed.

(** *** one node *)

Lemma code_match {A} (vc : code) (a b : A) : vc <> CTerminal ->
  match vc with CTerminal => a | CAbsolute => b | CRelative => b | CRelative1 => b end = b.
Proof. destruct vc; intros H; [contradiction|reflexivity..]. Qed.

Lemma code_terminal_or (vc : code) : vc = CTerminal \/ vc <> CTerminal.
Proof. destruct vc; [left; reflexivity|right; discriminate..]. Qed.

Lemma complement_eref (k : kind) (store : list cnode) (id : N) (c : bool) : k = KBCDD ->
  (if c then complement k store (eref id false) else Ok (store, eref id false)) = Ok (store, eref id c).
Proof.
  intros ->. destruct c; try reflexivity. unfold complement, neg, eref.
  destruct (id =? 1); reflexivity.
Qed.

Lemma eref_tag (id : N) (c : bool) : ce_tag (eref id c) = c.
Proof. unfold eref. destruct (id =? 1); reflexivity. Qed.

Lemma child_var_bound (slm : list N) l j v ch :
  (forall j nd, nth_error l j = Some nd -> wf_at (N.of_nat (length slm)) l j nd) ->
  child_ok l j v ch ->
  forall x, xvar (dag_of l) ch = Some x -> v < x /\ x < N.of_nat (length slm).
Proof.
  intros Hwf Hc x Hx.
  destruct (xvar_child _ _ _ _ Hc) as [[_ H]|(_ & nd' & Hn & Hv & H)]; rewrite H in Hx; [discriminate|].
  inversion Hx; subst. split; [assumption|]. apply (Hwf _ _ Hn).
Qed.

Lemma state_store_length (slm : list N) (l : list inode) j : (j <= length l)%nat -> length (st_store (state_of slm l j)) = j.
Proof. intros H. unfold state_of. cbn [st_store]. rewrite map_length, firstn_length. lia. Qed.

Theorem import_bin_node_step : forall k slm nlevels l j nd rest,
  k = KBCDD ->
  wf_dag (N.of_nat (length slm)) l -> incr slm -> Forall (fun x => x < level_max) slm ->
  N.of_nat (length slm) < usize_limit ->
  nth_error l j = Some nd ->
  N.of_nat j + 2 < usize_limit ->
  import_bin_node k slm nlevels (mkE (RTerm (TNum 1)) false) (state_of slm l j) (N.of_nat j + 2)
    (export_node (dag_of l) (N.of_nat j + 2) (xi nd) ++ rest)
  = Ok (state_of slm l (S j), rest).
Proof.
  intros k slm nlevels l j nd rest Hk [Hnodup Hwf] Hi Hf Hlim Hn Hid.
  destruct (Hwf j nd Hn) as (Hv & Hct & Hce & Hred).
  assert (Hj : (j < length l)%nat) by (apply nth_error_Some; congruence).
  pose proof (child_var_bound slm l j _ _ Hwf Hct) as Htb.
  pose proof (child_var_bound slm l j _ _ Hwf Hce) as Heb.
  pose proof (var_code_decode slm nlevels l (iv nd) (it nd) (ie nd) Hi Hf Hv Hlim Htb Heb) as HV.
  unfold xi, export_node.
  destruct (var_code (dag_of l) (iv nd) (it nd) (ie nd)) as [vc vx].
  destruct HV as (Hvc & Hvx & HF).
  pose proof (fun r : list byte => idx_ref_bin_idx l j (iv nd) (it nd) (N.of_nat j + 2) r eq_refl Hid Hct) as HT.
  pose proof (fun r : list byte => idx_ref_bin_idx l j (iv nd) (ie nd) (N.of_nat j + 2) r eq_refl Hid Hce) as HE.
  destruct (bin_idx (dag_of l) (N.of_nat j + 2) (it nd)) as [tc tx].
  destruct (bin_idx (dag_of l) (N.of_nat j + 2) (ie nd)) as [ec ex].
  destruct Hct as (Ht1 & Ht2 & Ht3). destruct Hce as (He1 & He2 & He3).
  unfold import_bin_node.
  rewrite <- !app_assoc, escape_one, read_unescape_escape. cbn [bind].
  rewrite split_node_code_roundtrip.
  rewrite code_match by assumption.
  rewrite opt_arg_decode by assumption. cbn [bind].
  rewrite HT. cbn [bind].
  rewrite node_at_state by assumption. cbn [bind].
  rewrite HE. cbn [bind].
  rewrite node_at_state by assumption. cbn [bind].
  rewrite complement_eref by assumption. cbn [bind].
  rewrite !edge_level_state by (try assumption; lia).
  rewrite HF. cbn [bind].
  rewrite lvl_nth_error by assumption.
  (* level check *)
  assert (Hlt : forall ch, (forall x, xvar (dag_of l) ch = Some x -> iv nd < x /\ x < N.of_nat (length slm)) ->
                           olevel slm (xvar (dag_of l) ch) <=? lvl slm (iv nd) = false).
  { intros ch Hb. apply N.leb_gt. destruct (xvar (dag_of l) ch) as [x|]; cbn [olevel].
    - destruct (Hb x eq_refl). apply lvl_lt; assumption.
    - apply lvl_lt_max; assumption. }
  rewrite (Hlt _ Htb), (Hlt _ Heb). cbn [orb].
  (* the node is new *)
  rewrite mk_node_fresh.
  - rewrite state_store_length by lia.
    unfold state_of. cbn [st_store st_nodes].
    rewrite (firstn_snoc l j nd Hn), map_app, nodes_upto_S. reflexivity.
  - assumption.
  - intros Heq. apply eref_inj in Heq; [|assumption..]. destruct Heq as [H1 H2]. apply Hred. auto.
  - apply eref_tag.
  - intros x Hx Heq. unfold state_of in Hx. cbn [st_store] in Hx.
    apply in_map_iff in Hx. destruct Hx as (nd' & Hcn & Hin).
    apply In_nth_error in Hin. destruct Hin as (i & Hi').
    assert (Hij : (i < j)%nat).
    { assert (i < length (firstn j l))%nat by (apply nth_error_Some; congruence).
      rewrite firstn_length in H. lia. }
    rewrite nth_error_firstn in Hi' by assumption.
    destruct (Hwf i nd' Hi') as (Hv' & (Ht1' & _) & (He1' & _) & _).
    assert (nd' = nd).
    { apply (cn_of_inj slm); try assumption. rewrite Hcn, Heq. reflexivity. }
    subst nd'.
    (* the same node at two positions contradicts NoDup *)
    rewrite NoDup_nth_error in Hnodup.
    assert (i = j) by (apply Hnodup; [apply nth_error_Some; congruence|congruence]). lia.
Qed.

(** *** the whole node section *)

Lemma skipn_nth {A} (l : list A) j x : nth_error l j = Some x -> skipn j l = x :: skipn (S j) l.
Proof.
  revert j; induction l as [|a l IH]; intros [|j] H; cbn in *; try discriminate.
  - inversion H; reflexivity.
  - apply IH. exact H.
Qed.

Lemma NoDup_map_firstn {A B} (f : A -> B) l j nd :
  NoDup (map f l) -> nth_error l j = Some nd -> ~ In (f nd) (map f (firstn j l)).
Proof.
  intros Hnd Hn Hin. rewrite <- (firstn_skipn j l), map_app, (skipn_nth l j nd Hn) in Hnd.
  apply NoDup_remove_2 in Hnd. apply Hnd. apply in_or_app. left. exact Hin.
Qed.

(** *** printer then parser, node by node

    Every node section is written by a loop [print_from] over the nodes and read by a loop over
    the node IDs.  If one step of the reader on the text of node [j] takes [state j] to
    [state (S j)], the reader's loop on the printed section takes [state 0] to
    [state (length l)].  The binary, the ASCII and the ternary section are instances. *)
Section NodeLoop.
Context {St A : Type}.
Variable step : St -> N -> list byte -> res (St * list byte).
Variable loop : nat -> N -> St -> list byte -> res (St * list byte).
Variable print : N -> A -> list byte.
Variable print_from : N -> list A -> list byte.
Hypothesis loop_O : forall id st inp, loop O id st inp = Ok (st, inp).
Hypothesis loop_S : forall n id st inp,
  loop (S n) id st inp = '(st', inp') <- step st id inp ;; loop n (id + 1) st' inp'.
Hypothesis print_nil : forall id, print_from id [] = [].
Hypothesis print_cons : forall id x r, print_from id (x :: r) = print id x ++ print_from (id + 1) r.

Lemma loop_print (state : nat -> St) (l : list A) (base : N) rest :
  (forall j x tail, nth_error l j = Some x ->
     step (state j) (base + N.of_nat j) (print (base + N.of_nat j) x ++ tail) = Ok (state (S j), tail)) ->
  forall n j, (j + n = length l)%nat ->
  loop n (base + N.of_nat j) (state j) (print_from (base + N.of_nat j) (skipn j l) ++ rest)
  = Ok (state (length l), rest).
Proof.
  intros Hstep. induction n as [|n IH]; intros j Hj.
  - assert (j = length l) by lia. subst j. rewrite skipn_all, print_nil, loop_O. reflexivity.
  - destruct (nth_error l j) as [x|] eqn:Hx; [|apply nth_error_None in Hx; lia].
    rewrite (skipn_nth l j x Hx), print_cons, <- app_assoc, loop_S, (Hstep j x _ Hx). cbn [bind].
    replace (base + N.of_nat j + 1) with (base + N.of_nat (S j)) by lia. apply IH. lia.
Qed.

Lemma loop_add : forall n1 n2 id st inp,
  loop (n1 + n2) id st inp =
  bind (loop n1 id st inp) (fun r => loop n2 (id + N.of_nat n1) (fst r) (snd r)).
Proof.
  induction n1 as [|n1 IH]; intros n2 id st inp.
  - cbn [Nat.add]. rewrite loop_O. cbn [bind fst snd]. f_equal. lia.
  - cbn [Nat.add]. rewrite !loop_S. destruct (step st id inp) as [[st' inp']|]; cbn [bind]; [|reflexivity].
    rewrite IH. replace (id + 1 + N.of_nat n1) with (id + N.of_nat (S n1)) by lia. reflexivity.
Qed.

Lemma print_from_app : forall a b id,
  print_from id (a ++ b) = print_from id a ++ print_from (id + N.of_nat (length a)) b.
Proof.
  induction a as [|x a IH]; intros b id.
  - rewrite print_nil. cbn. f_equal. lia.
  - cbn [app length]. rewrite !print_cons, IH, <- app_assoc. do 3 f_equal. lia.
Qed.

End NodeLoop.

(** The importer reads the exporter's binary node section back: node ID [i + 2] denotes
    entry [i] of the unique table, which holds exactly the exported nodes (levels via
    [suppvar_level_map]), and nothing of the input after the section is consumed. *)
Theorem import_export_bin : forall k slm nlevels l rest,
  k = KBCDD ->
  wf_dag (N.of_nat (length slm)) l -> incr slm -> Forall (fun x => x < level_max) slm ->
  N.of_nat (length slm) < usize_limit ->
  N.of_nat (length l) + 1 < usize_limit ->
  import_bin k slm nlevels (N.of_nat (length (dag_of l))) (export_nodes (dag_of l) ++ rest)
  = Ok (state_of slm l (length l), rest).
Proof.
  intros k slm nlevels l rest Hk Hwf Hi Hf Hlim Hlen.
  unfold import_bin, export_nodes. change (length (dag_of l)) with (S (length (map xi l))).
  rewrite map_length.
  destruct (N.eqb_spec (N.of_nat (S (length l))) 0); [lia|].
  change (export_from (dag_of l) 1 (dag_of l))
    with (export_node (dag_of l) 1 XTerm ++ export_from (dag_of l) (1 + 1) (map xi l)).
  assert (Hbt : bin_terminal k = Some (mkE (RTerm (TNum 1)) false)) by (subst k; reflexivity).
  rewrite Hbt, Nat2N.id.
  cbn [import_bin_loop export_node].
  rewrite <- app_assoc.
  unfold import_bin_node.
  rewrite escape_one, read_unescape_escape. cbn [bind].
  change (split_node_code (node_code CTerminal CTerminal false CTerminal))
    with (CTerminal, CTerminal, false, CTerminal).
  cbn [bind].
  change (mkS (st_store empty_state) (st_nodes empty_state ++ [mkE (RTerm (TNum 1)) false]))
    with (state_of slm l 0).
  apply (loop_print (import_bin_node k slm nlevels (mkE (RTerm (TNum 1)) false))
           (import_bin_loop k slm nlevels (mkE (RTerm (TNum 1)) false))
           (fun id nd => export_node (dag_of l) id (xi nd)) (fun id r => export_from (dag_of l) id (map xi r))
           (fun _ _ _ => eq_refl) (fun _ _ _ _ => eq_refl) (fun _ => eq_refl) (fun _ _ _ => eq_refl)
           (state_of slm l) l 2 rest) with (n := length l) (j := O); [|reflexivity].
  intros j nd tail Hn. rewrite (N.add_comm 2).
  assert (j < length l)%nat by (apply nth_error_Some; congruence).
  apply import_bin_node_step; try assumption. lia.
Qed.

(** no nodes at all (export of no function) *)
Theorem import_export_bin_empty : forall k slm nlevels rest,
  import_bin k slm nlevels 0 (export_nodes [] ++ rest) = Ok (empty_state, rest).
Proof. reflexivity. Qed.

(** *** roots and the complete binary file body *)

Definition root_ok (l : list inode) (r : Z) : Prop :=
  (r <> 0)%Z /\ Z.abs_N r <= N.of_nat (length l) + 1.

Lemma import_roots_state : forall k slm l rootids,
  k = KBCDD -> Forall (root_ok l) rootids ->
  import_roots k (state_of slm l (length l)) rootids =
  Ok (state_of slm l (length l), map (fun r => eref (Z.abs_N r) (r <? 0)%Z) rootids).
Proof.
  intros k slm l rootids Hk. induction 1 as [|r rs [Hr0 Hr] _ IH]; [reflexivity|].
  cbn [import_roots map].
  destruct (Z.eqb_spec r 0); [contradiction|].
  assert (H1 : 1 <= Z.abs_N r) by lia.
  change (st_nodes (state_of slm l (length l))) with (nodes_upto (length l)).
  rewrite nth_error_nodes_upto by lia. cbn [bind].
  rewrite complement_eref by assumption. cbn [bind].
  change (mkS (st_store (state_of slm l (length l))) (nodes_upto (length l)))
    with (state_of slm l (length l)).
  rewrite IH. reflexivity.
Qed.

(** [.end] followed by a line break is what the exporter writes after the nodes *)
Definition trailer : list byte := [46; 101; 110; 100; 10].

Theorem import_file_export_bin : forall k vin slm nlevels l rootids,
  k = KBCDD ->
  wf_dag (N.of_nat (length slm)) l -> incr slm -> Forall (fun x => x < level_max) slm ->
  N.of_nat (length slm) < usize_limit ->
  N.of_nat (length l) + 1 < usize_limit ->
  Forall (root_ok l) rootids ->
  import_file k false vin slm nlevels (N.of_nat (length (dag_of l))) rootids
              (export_nodes (dag_of l) ++ trailer)
  = Ok (state_of slm l (length l), map (fun r => eref (Z.abs_N r) (r <? 0)%Z) rootids).
Proof.
  intros. unfold import_file.
  rewrite import_export_bin by assumption. cbn [bind].
  change (reads_end trailer) with true. cbn [negb].
  apply import_roots_state; assumption.
Qed.

(** *** the hypotheses are satisfiable: x0 ∧ x1, x0 ⊕ x1 and ¬x1 over three support levels *)

Definition ex_dag : list inode :=
  [ mkI 2 1 1 true;      (* id 2: x2 ? ⊤ : ⊥ *)
    mkI 1 1 1 true;      (* id 3: x1 *)
    mkI 0 3 1 true;      (* id 4: x0 ∧ x1 *)
    mkI 0 3 3 true;      (* id 5: x0 ? x1 : ¬x1 *)
    mkI 1 2 1 true ].    (* id 6: x1 ∧ x2 *)

Definition childb (l : list inode) (j : nat) (v ch : N) : bool :=
  (1 <=? ch) && (ch <? N.of_nat j + 2) &&
  ((ch =? 1) || match nth_error l (N.to_nat (ch - 2)) with
                | Some nd' => v <? iv nd' | None => false end).

Definition wf_atb (nsupp : N) (l : list inode) (j : nat) (nd : inode) : bool :=
  (iv nd <? nsupp) && childb l j (iv nd) (it nd) && childb l j (iv nd) (ie nd)
  && negb ((it nd =? ie nd) && negb (ic nd)).

Lemma childb_sound l j v ch : childb l j v ch = true -> child_ok l j v ch.
Proof.
  unfold childb, child_ok. intros H.
  apply andb_prop in H. destruct H as [H H3].
  apply andb_prop in H. destruct H as [H1 H2].
  apply N.leb_le in H1. apply N.ltb_lt in H2.
  split; [assumption|]. split; [assumption|]. intros Hne.
  apply orb_prop in H3. destruct H3 as [H3|H3].
  - apply N.eqb_eq in H3. contradiction.
  - destruct (nth_error l (N.to_nat (ch - 2))) as [nd'|]; [|discriminate].
    exists nd'. split; [reflexivity|]. apply N.ltb_lt. assumption.
Qed.

Lemma wf_atb_sound nsupp l j nd : wf_atb nsupp l j nd = true -> wf_at nsupp l j nd.
Proof.
  unfold wf_atb, wf_at. intros H.
  apply andb_prop in H. destruct H as [H Hred].
  apply andb_prop in H. destruct H as [H He].
  apply andb_prop in H. destruct H as [Hv Ht].
  apply N.ltb_lt in Hv. apply childb_sound in Ht. apply childb_sound in He.
  split; [assumption|]. split; [assumption|]. split; [assumption|].
  intros [Heq Hc]. apply negb_true_iff in Hred.
  rewrite Heq, Hc, N.eqb_refl in Hred. discriminate.
Qed.

Example ex_dag_wf : wf_dag 3 ex_dag.
Proof.
  split.
  - repeat constructor; cbn; intuition discriminate.
  - intros j nd H. apply wf_atb_sound.
    do 5 (destruct j as [|j]; [inversion H; subst; reflexivity|]).
    destruct j; discriminate.
Qed.

Example ex_slm_incr : incr [1; 4; 5].
Proof.
  intros i j a b Ha Hb Hij.
  do 3 (destruct i as [|i]; [do 3 (destruct j as [|j]; [try lia; inversion Ha; inversion Hb; subst; lia|]); destruct j; discriminate|]).
  destruct i; discriminate.
Qed.

(** the exported bytes of the example (node section of a BCDD dump), and its import
    into a manager with six levels where the support sits at levels 1, 4, 5 *)
Example ex_dag_bytes :
  export_nodes (dag_of ex_dag) = [0; 0; 36; 4; 36; 2; 124; 118; 4; 4; 108; 4].
Proof. vm_compute. reflexivity. Qed.

Example ex_dag_roundtrip :
  import_file KBCDD false true [1; 4; 5] 6 6 [4; -5; 6; -1]%Z (export_nodes (dag_of ex_dag) ++ trailer)
  = Ok (state_of [1; 4; 5] ex_dag 5, [eref 4 false; eref 5 true; eref 6 false; eref 1 true]).
Proof. vm_compute. reflexivity. Qed.

(** ** (d) names *)

(** a name the format can carry inside a space-separated header line *)
Definition clean (s : list byte) : Prop := Forall (fun b => is_space_or_control b = false) s.
Definition no_control (s : list byte) : Prop := Forall (fun b => is_ascii_control b = false) s.

Lemma existsb_false_Forall {A} (p : A -> bool) l : existsb p l = false <-> Forall (fun x => p x = false) l.
Proof.
  induction l as [|x l IH]; cbn; [split; auto|].
  rewrite orb_false_iff, IH. split.
  - intros [H1 H2]. constructor; assumption.
  - intros H. inversion H; auto.
Qed.

Lemma map_id_Forall {A} (f : A -> A) l : Forall (fun x => f x = x) l -> map f l = l.
Proof. induction 1; cbn; congruence. Qed.

Lemma replace_bytes_spec (p : byte -> bool) (c : byte) (s : list byte) : p c = false ->
  Forall (fun b => p b = false) (map (fun b => if p b then c else b) s) /\
  length (map (fun b => if p b then c else b) s) = length s /\
  (existsb p s = false <-> Forall (fun b => p b = false) s) /\
  (Forall (fun b => p b = false) s -> map (fun b => if p b then c else b) s = s).
Proof.
  intros Hc. splits.
  - apply Forall_map. apply Forall_forall. intros b _. destruct (p b) eqn:E; [exact Hc|exact E].
  - apply map_length.
  - apply existsb_false_Forall.
  - intros H. apply map_id_Forall. eapply Forall_impl; [|exact H]. cbn. intros b Hb. rewrite Hb. reflexivity.
Qed.

Theorem replace_space_and_control_clean : forall s, clean (fst (replace_space_and_control s)).
Proof. intros s. exact (proj1 (replace_bytes_spec is_space_or_control 95 s eq_refl)). Qed.

Theorem replace_space_and_control_length : forall s,
  length (fst (replace_space_and_control s)) = length s.
Proof. intros. apply map_length. Qed.

Theorem replace_space_and_control_flag : forall s,
  snd (replace_space_and_control s) = false <-> clean s.
Proof. intros s. apply existsb_false_Forall. Qed.

Theorem replace_space_and_control_id : forall s, clean s -> replace_space_and_control s = (s, false).
Proof.
  intros s H. destruct (replace_bytes_spec is_space_or_control 95 s eq_refl) as (_ & _ & Hf & Hid).
  unfold replace_space_and_control. f_equal; [exact (Hid H)|exact (proj2 Hf H)].
Qed.

Theorem write_replacing_control_spec : forall s,
  no_control (fst (write_replacing_control s)) /\
  length (fst (write_replacing_control s)) = length s /\
  (snd (write_replacing_control s) = false <-> no_control s) /\
  (no_control s -> fst (write_replacing_control s) = s).
Proof. intros s. exact (replace_bytes_spec is_ascii_control 32 s eq_refl). Qed.

Lemma is_digit_mod10 n : is_digit (48 + n mod 10) = true.
Proof.
  pose proof (N.mod_lt n 10 ltac:(discriminate)) as H. set (d := n mod 10) in *. clearbody d.
  unfold is_digit. apply andb_true_intro. split; apply N.leb_le; lia.
Qed.

Lemma dec_go_digits : forall fuel n acc,
  Forall (fun b => is_digit b = true) acc -> Forall (fun b => is_digit b = true) (dec_go fuel n acc).
Proof.
  induction fuel as [|f IH]; intros n acc H; cbn [dec_go]; [assumption|].
  pose proof (is_digit_mod10 n) as Hd.
  destruct (n <? 10); [constructor; assumption|]. apply IH. constructor; assumption.
Qed.

Lemma dec_go_nonempty : forall fuel n acc, acc <> [] \/ fuel <> O -> dec_go fuel n acc <> [].
Proof.
  induction fuel as [|f IH]; intros n acc H; cbn [dec_go].
  - destruct H; [assumption|contradiction].
  - destruct (n <? 10); [discriminate|]. apply IH. left. discriminate.
Qed.

Lemma digit_clean b : is_digit b = true -> is_space_or_control b = false.
Proof.
  unfold is_digit, is_space_or_control, is_ascii_control. intros H.
  apply andb_prop in H. destruct H as [H1 H2]. apply N.leb_le in H1. apply N.leb_le in H2.
  destruct (N.ltb_spec b 32); [lia|]. destruct (N.eqb_spec b 127); [lia|]. destruct (N.eqb_spec b 32); [lia|].
  reflexivity.
Qed.

Lemma dec_clean n : clean (dec n) /\ dec n <> [].
Proof.
  split.
  - unfold clean, dec. eapply Forall_impl; [apply digit_clean|]. apply dec_go_digits. constructor.
  - apply dec_go_nonempty. right. discriminate.
Qed.

Lemma clean_app a b : clean a -> clean b -> clean (a ++ b).
Proof. intros. apply Forall_app. split; assumption. Qed.

Lemma underscores_clean n : clean (underscores n).
Proof. unfold clean, underscores. apply Forall_forall. intros b Hb. apply repeat_spec in Hb. subst. reflexivity. Qed.

(** root names: the written name is clean and non-empty; clean non-empty names are
    written unchanged and are the only ones not reported in strict mode *)
Theorem sanitize_root_name_spec : forall i name,
  clean (fst (sanitize_root_name i name)) /\ fst (sanitize_root_name i name) <> [] /\
  (snd (sanitize_root_name i name) = false <-> (clean name /\ name <> [])) /\
  (clean name -> name <> [] -> fst (sanitize_root_name i name) = name).
Proof.
  intros i name. destruct name as [|b name].
  - cbn [sanitize_root_name fst snd].
    split; [apply clean_app; [repeat constructor|apply dec_clean]|].
    split; [discriminate|].
    split; [split; [discriminate|intros [_ Hne]; contradiction]|].
    intros _ Hne. contradiction.
  - cbn [sanitize_root_name].
    split; [apply replace_space_and_control_clean|].
    split.
    { intros Hnil. apply (f_equal (@length _)) in Hnil.
      rewrite replace_space_and_control_length in Hnil. discriminate. }
    split.
    { rewrite replace_space_and_control_flag. split; [intros Hc; split; [exact Hc|discriminate]|intros [Hc _]; exact Hc]. }
    intros Hc _. rewrite replace_space_and_control_id by assumption. reflexivity.
Qed.

(** variable names *)
Lemma var_out_name_ok lead prefix_all i orig :
  let r := replace_space_and_control orig in
  clean (var_out_name lead prefix_all i orig r) /\ var_out_name lead prefix_all i orig r <> [].
Proof.
  cbn zeta. unfold var_out_name.
  destruct (replace_space_and_control orig) as [n owned] eqn:E.
  assert (Hn : clean n) by (pose proof (replace_space_and_control_clean orig) as H; rewrite E in H; exact H).
  assert (Hl : length n = length orig) by (pose proof (replace_space_and_control_length orig) as H; rewrite E in H; exact H).
  assert (Hf : owned = false <-> clean orig) by (pose proof (replace_space_and_control_flag orig) as H; rewrite E in H; exact H).
  destruct owned.
  - destruct prefix_all.
    + split.
      * repeat apply clean_app; try apply underscores_clean; try apply dec_clean; try assumption; repeat constructor.
      * intros H. apply app_eq_nil in H. destruct H as [_ H]. discriminate.
    + split; [assumption|]. intros ->. destruct orig; [|discriminate].
      cbn in E. inversion E.
  - destruct orig as [|b orig].
    + split.
      * repeat apply clean_app; try apply underscores_clean; try apply dec_clean; repeat constructor.
      * intros H. apply app_eq_nil in H. destruct H as [_ H]. discriminate.
    + split; [apply Hf; reflexivity|discriminate].
Qed.

Lemma map_vars_ok lead prefix_all : forall names i,
  Forall (fun n => clean n /\ n <> [])
         (map_vars lead prefix_all i names (map replace_space_and_control names)) /\
  length (map_vars lead prefix_all i names (map replace_space_and_control names)) = length names.
Proof.
  induction names as [|o os IH]; intros i; cbn [map map_vars]; [split; [constructor|reflexivity]|].
  destruct (IH (i + 1)) as [H1 H2]. split.
  - constructor; [apply var_out_name_ok|exact H1].
  - cbn [length]. rewrite H2. reflexivity.
Qed.

(** every variable name written to the file is non-empty and free of spaces and control
    characters, and there is one per variable *)
Theorem export_var_names_clean : forall strict names out err,
  export_var_names strict names = (Some out, err) ->
  Forall (fun n => clean n /\ n <> []) out /\ length out = length names.
Proof.
  intros strict names out err H. unfold export_var_names in H.
  destruct (Nat.eqb _ _ || _); [|discriminate]. inversion H; subst. apply map_vars_ok.
Qed.

Lemma map_vars_id lead : forall names i,
  Forall (fun n => clean n /\ n <> []) names ->
  map_vars lead false i names (map replace_space_and_control names) = names.
Proof.
  induction names as [|o os IH]; intros i H; [reflexivity|].
  inversion H as [|? ? [Hc Hne] Hr]; subst. cbn [map map_vars].
  rewrite IH by assumption. f_equal.
  rewrite replace_space_and_control_id by assumption. cbn [var_out_name].
  destruct o; [contradiction|reflexivity].
Qed.

(** names that the format can carry are written unchanged, without an error, in both modes *)
Theorem export_var_names_id : forall strict names,
  names <> [] -> Forall (fun n => clean n /\ n <> []) names ->
  export_var_names strict names = (Some names, false).
Proof.
  intros strict names Hne H. unfold export_var_names.
  assert (Hfil : filter (fun n => negb (bytes_eqb n [])) names = names).
  { clear Hne. induction H as [|n l [_ Hn] _ IH]; [reflexivity|]. cbn [filter].
    destruct n; [contradiction|]. cbn. rewrite IH. reflexivity. }
  rewrite Hfil, Nat.eqb_refl. cbn [orb].
  assert (Hrep : existsb snd (map replace_space_and_control names) = false).
  { apply existsb_false_Forall. apply Forall_map. eapply Forall_impl; [|exact H].
    cbn. intros n [Hc _]. apply replace_space_and_control_flag. exact Hc. }
  rewrite Hrep. cbn [andb]. rewrite andb_false_r.
  rewrite map_vars_id by assumption. reflexivity.
Qed.

Lemma filter_len_le {A} (p : A -> bool) l : (length (filter p l) <= length l)%nat.
Proof. induction l as [|x l IH]; cbn; [lia|]. destruct (p x); cbn; lia. Qed.

(** strict mode reports an error exactly when the names are written and one of them
    contains a space or a control character *)
Theorem export_var_names_strict : forall names,
  snd (export_var_names true names) = true <->
  (Forall (fun n => n <> []) names /\ exists n, In n names /\ ~ clean n).
Proof.
  intros names. unfold export_var_names. cbn [negb andb orb]. rewrite orb_false_r.
  set (named := length (filter (fun n => negb (bytes_eqb n [])) names)).
  assert (Hall : Nat.eqb named (length names) = true <-> Forall (fun n => n <> []) names).
  { subst named. rewrite Nat.eqb_eq. clear. induction names as [|n l IH]; [split; auto|].
    cbn [filter length]. destruct n as [|b n]; cbn [bytes_eqb negb].
    - split.
      + intros H. pose proof (filter_len_le (fun n => negb (bytes_eqb n [])) l). lia.
      + intros H. inversion H; contradiction.
    - cbn [length]. split.
      + intros H. constructor; [discriminate|]. apply IH. lia.
      + intros H. inversion H; subst. f_equal. apply IH. assumption. }
  assert (Hex : existsb snd (map replace_space_and_control names) = true <-> exists n, In n names /\ ~ clean n).
  { rewrite existsb_exists. split.
    - intros (r & Hin & Hs). apply in_map_iff in Hin. destruct Hin as (n & <- & Hn).
      exists n. split; [assumption|]. intros Hc. apply replace_space_and_control_flag in Hc. congruence.
    - intros (n & Hn & Hc). exists (replace_space_and_control n). split; [apply in_map; assumption|].
      destruct (snd (replace_space_and_control n)) eqn:E; [reflexivity|].
      apply replace_space_and_control_flag in E. contradiction. }
  destruct (Nat.eqb named (length names)) eqn:E; cbn [snd].
  - rewrite Hex. split; [intros H; split; [apply Hall; reflexivity|exact H]|intros [_ H]; exact H].
  - split; [discriminate|]. intros [H _]. apply Hall in H. discriminate.
Qed.

(** ** semantics: the imported handles denote the functions of the exported nodes *)

(** natural semantics of the exporter's node list: node ID 1 is ⊤, an inner node
    branches on the variable at its level, a complemented reference negates *)
Fixpoint sem (slm : list N) (l : list inode) (fuel : nat) (env : N -> bool) (id : N) (tag : bool) : tval :=
  let flip v := if tag then tneg v else v in
  if id =? 1 then flip (TNum 1)
  else match fuel with
       | O => TNaN
       | S f =>
         match nth_error l (N.to_nat (id - 2)) with
         | None => TNaN
         | Some nd => flip (if env (lvl slm (iv nd)) then sem slm l f env (it nd) false
                            else sem slm l f env (ie nd) (ic nd))
         end
       end.

Theorem eval_state_sem : forall slm l fuel env id tag,
  eval_edge (st_store (state_of slm l (length l))) fuel env (eref id tag) = sem slm l fuel env id tag.
Proof.
  intros slm l. unfold state_of. cbn [st_store]. rewrite firstn_all.
  induction fuel as [|f IH]; intros env id tag.
  - unfold eref. cbn [sem eval_edge]. destruct (id =? 1); reflexivity.
  - unfold eref. cbn [sem]. destruct (N.eqb_spec id 1) as [->|Hne]; [reflexivity|].
    cbn [eval_edge ce_ref ce_tag]. rewrite nth_error_map.
    destruct (nth_error l (N.to_nat (id - 2))) as [nd|]; [|reflexivity].
    cbn [option_map cn_of cn_level cn_t cn_e].
    destruct (env (lvl slm (iv nd))); rewrite IH; reflexivity.
Qed.
