(** * C15 (package C15t): TDD files — the decoder reads back what the exporter model writes,
      the arity check of the code rejects the exporter's terminal lines, export settings *)
From Coq Require Import String Ascii.
From Coq Require Import List NArith ZArith Bool Arith Lia.
From OxiVerif Require Import Base.ListFacts IO.Dddmp IO.DddmpProofs IO.DddmpAsciiProofs IO.DddmpFile IO.DddmpFileProofs
  IO.DddmpFileRoundtrip IO.DddmpTdd.
Import ListNotations.
Open Scope N_scope.

(** ** export settings *)

(** every getter returns what the matching builder method stored; the other fields are untouched *)
Theorem settings_get_set s :
  (forall v, get_version3 (set_version s v) = v /\ is_ascii (set_version s v) = is_ascii s /\
             is_strict (set_version s v) = is_strict s /\ get_diagram_name (set_version s v) = get_diagram_name s) /\
  (is_ascii (set_ascii s) = true /\ get_version3 (set_ascii s) = get_version3 s /\
   is_strict (set_ascii s) = is_strict s /\ get_diagram_name (set_ascii s) = get_diagram_name s) /\
  (is_ascii (set_binary s) = false /\ get_version3 (set_binary s) = get_version3 s /\
   is_strict (set_binary s) = is_strict s /\ get_diagram_name (set_binary s) = get_diagram_name s) /\
  (forall b, is_strict (set_strict s b) = b /\ get_version3 (set_strict s b) = get_version3 s /\
             is_ascii (set_strict s b) = is_ascii s /\ get_diagram_name (set_strict s b) = get_diagram_name s) /\
  (forall n, get_diagram_name (set_diagram_name s n) = n /\ get_version3 (set_diagram_name s n) = get_version3 s /\
             is_ascii (set_diagram_name s n) = is_ascii s /\ is_strict (set_diagram_name s n) = is_strict s).
Proof. repeat split. Qed.

(** a chain of builder calls: every field is decided by the last call that concerns it *)
Definition last_version (cs : list setter) : bool :=
  fold_left (fun a c => match c with SVersion v => v | _ => a end) cs false.
Definition last_ascii (cs : list setter) : bool :=
  fold_left (fun a c => match c with SAscii => true | SBinary => false | _ => a end) cs false.
Definition last_strict (cs : list setter) : bool :=
  fold_left (fun a c => match c with SStrict b => b | _ => a end) cs true.
Definition last_name (cs : list setter) : list byte :=
  fold_left (fun a c => match c with SName n => n | _ => a end) cs [].

Lemma apply_setters_from cs : forall s,
  fold_left apply_setter cs s =
  mkSet (fold_left (fun a c => match c with SVersion v => v | _ => a end) cs (get_version3 s))
        (fold_left (fun a c => match c with SAscii => true | SBinary => false | _ => a end) cs (is_ascii s))
        (fold_left (fun a c => match c with SStrict b => b | _ => a end) cs (is_strict s))
        (fold_left (fun a c => match c with SName n => n | _ => a end) cs (get_diagram_name s)).
Proof.
  induction cs as [|c cs IH]; intros [v a st n]; [reflexivity|].
  cbn [fold_left]. rewrite IH. destruct c; reflexivity.
Qed.

Theorem settings_chain cs :
  apply_setters cs = mkSet (last_version cs) (last_ascii cs) (last_strict cs) (last_name cs).
Proof. unfold apply_setters. rewrite apply_setters_from. reflexivity. Qed.

(** binary mode is never chosen for a ternary diagram, whatever the settings and terminals are *)
Theorem tdd_binary_unsupported nterm : binary_supported tdd_arity nterm = false.
Proof. reflexivity. Qed.

Theorem tdd_export_always_ascii s nterm descs : export_ascii_mode s tdd_arity nterm descs = true.
Proof. unfold export_ascii_mode. rewrite tdd_binary_unsupported. cbn [negb]. rewrite orb_true_r. reflexivity. Qed.

Lemma bytes_eqb_iff : forall a b, bytes_eqb a b = true <-> a = b.
Proof.
  induction a as [|x a IH]; intros [|y b]; cbn [bytes_eqb]; try (split; [discriminate|discriminate]); [tauto|].
  rewrite andb_true_iff, N.eqb_eq, IH. split; [intros [-> ->]; reflexivity|intros H; inversion H; auto].
Qed.

(** for the binary kinds the mode line is "B" exactly when the settings ask for it, the
    manager has a single terminal and every exported terminal is written as "T" *)
Theorem export_binary_iff s nterm descs :
  export_ascii_mode s 2 nterm descs = false <->
  is_ascii s = false /\ nterm = 1 /\ Forall (fun d => d = bs "T") descs.
Proof.
  unfold export_ascii_mode, binary_supported. change (2 =? 2) with true. cbn [andb].
  rewrite !orb_false_iff, negb_false_iff, N.eqb_eq.
  assert (H : existsb (fun d => negb (bytes_eqb d (bs "T"))) descs = false <-> Forall (fun d => d = bs "T") descs).
  { induction descs as [|d ds IH]; cbn [existsb].
    - split; [constructor|reflexivity].
    - rewrite orb_false_iff, negb_false_iff, IH. split.
      + intros [H1 H2]. constructor; [apply bytes_eqb_iff; exact H1|exact H2].
      + intros H. inversion H; subst. split; [apply bytes_eqb_iff; reflexivity|assumption]. }
  rewrite H. tauto.
Qed.

(** ** the TDD manager model *)

Lemma tterm_eqb_eq a b : tterm_eqb a b = true <-> a = b.
Proof. destruct a, b; cbn; split; intros H; try reflexivity; discriminate. Qed.

Lemma tref_eqb_eq a b : tref_eqb a b = true <-> a = b.
Proof.
  destruct a as [x|i], b as [y|j]; cbn [tref_eqb]; try (split; discriminate).
  - rewrite tterm_eqb_eq. split; [intros ->; reflexivity|intros H; inversion H; reflexivity].
  - rewrite N.eqb_eq. split; [intros ->; reflexivity|intros H; inversion H; reflexivity].
Qed.

Lemma tnode_eqb_eq a b : tnode_eqb a b = true <-> a = b.
Proof.
  destruct a as [l1 t1 u1 e1], b as [l2 t2 u2 e2]. unfold tnode_eqb. cbn [tn_level tn_t tn_u tn_e].
  rewrite !andb_true_iff, N.eqb_eq, !tref_eqb_eq. split.
  - intros [[[-> ->] ->] ->]. reflexivity.
  - intros H. inversion H. auto.
Qed.

Lemma tnode_eqb_neq a b : a <> b -> tnode_eqb a b = false.
Proof. intros H. destruct (tnode_eqb a b) eqn:E; [|reflexivity]. apply tnode_eqb_eq in E. contradiction. Qed.

Lemma tdd_find_or_add_fresh store n :
  (forall x, In x store -> x <> n) ->
  tdd_find_or_add store n = (store ++ [n], TRNode (N.of_nat (length store))).
Proof.
  intros H. unfold tdd_find_or_add. rewrite find_index_none; [reflexivity|].
  intros x Hx. apply tnode_eqb_neq. intros ->. exact (H _ Hx eq_refl).
Qed.

(** [AsciiDisplay] followed by [ParseTagged::parse] is the identity on the three terminals *)
Theorem tdd_parse_desc v : tdd_parse_terminal (tdd_desc v) = Some (TRTerm v).
Proof. destruct v; vm_compute; reflexivity. Qed.

Lemma tdd_desc_token v : token (tdd_desc v).
Proof. destruct v; (split; [discriminate|repeat constructor]). Qed.

Lemma tdd_desc_no_nl v : no_nl (tdd_desc v).
Proof. destruct v; repeat constructor; discriminate. Qed.

(** ** one line *)

Lemma tdd_export_line_term id desc : tdd_export_line id (TATerm desc) = term_text id desc ++ [10].
Proof. unfold tdd_export_line, term_text. rewrite <- !app_assoc. reflexivity. Qed.

(** the decoder reads a terminal line of the exporter *)
Theorem tdd_import_line_term : forall slm st id desc r,
  id < usize_limit -> token desc -> tdd_parse_terminal desc = Some r ->
  tdd_import_line false true slm st id (term_text id desc) = Ok (mkTS (ts_store st) (ts_nodes st ++ [r])).
Proof.
  intros slm st id desc r Hid Htok Hp. unfold tdd_import_line, term_text.
  change (desc ++ [32; 48; 32; 48]) with (desc ++ 32 :: [48; 32; 48]).
  rewrite line_head by assumption. cbn [bind]. rewrite N.eqb_refl. cbn [negb].
  rewrite trim_start_sp_token by assumption. cbn [bind].
  rewrite trim_start_token by assumption.
  rewrite split_sp_token by apply Htok.
  rewrite parse_edge_list_zeros. cbn [bind andb existsb Z.eqb orb].
  rewrite Hp. reflexivity.
Qed.

(** the reader of the code ([children.len() != ARITY] comes first) rejects the same line *)
Theorem tdd_import_line_term_strict : forall slm st id desc,
  id < usize_limit -> token desc ->
  tdd_import_line true true slm st id (term_text id desc) = Err EArity.
Proof.
  intros slm st id desc Hid Htok. unfold tdd_import_line, term_text.
  change (desc ++ [32; 48; 32; 48]) with (desc ++ 32 :: [48; 32; 48]).
  rewrite line_head by assumption. cbn [bind]. rewrite N.eqb_refl. cbn [negb].
  rewrite trim_start_sp_token by assumption. cbn [bind].
  rewrite trim_start_token by assumption.
  rewrite split_sp_token by apply Htok.
  rewrite parse_edge_list_zeros. reflexivity.
Qed.

Definition tinner_text (id v : N) (t u e : Z) : list byte :=
  dec id ++ [32] ++ dec v ++ [32] ++ dec_z t ++ [32] ++ dec_z u ++ [32] ++ dec_z e.

Lemma tdd_export_line_inner id v t u e :
  tdd_export_line id (TAInner v t u e) = tinner_text id v t u e ++ [10].
Proof. unfold tdd_export_line, tinner_text. rewrite <- !app_assoc. reflexivity. Qed.

Lemma read_line_tinner id v t u e tail :
  read_line ((tinner_text id v t u e ++ [10]) ++ tail) = Ok (tinner_text id v t u e, tail).
Proof. unfold tinner_text. apply read_line_text; [do 8 apply line_end_app; apply line_end_dec_z|solve_no_nl]. Qed.

Theorem parse_edge_list_three : forall t u e,
  Z.abs_N t <= isize_max -> Z.abs_N u <= isize_max -> Z.abs_N e <= isize_max ->
  parse_edge_list (dec_z t ++ [32] ++ dec_z u ++ [32] ++ dec_z e) = Ok [t; u; e].
Proof.
  intros t u e Ht Hu He. unfold parse_edge_list. cbn [app].
  rewrite pel_dec_z_sp by assumption. rewrite pel_dec_z_sp by assumption.
  rewrite pel_dec_z_end by assumption. reflexivity.
Qed.

(** ** diagrams as the exporter numbers them

    The exported terminals come first (node IDs [1 .. T]), then the inner nodes bottom-up;
    entry [j] of [l] has node ID [T + 1 + j].  TDD edges are never complemented: all
    references are positive. *)
Record tainode := mkTA { tav : N; tat : Z; tau : Z; tae : Z }.

Definition tainner (nd : tainode) : tanode := TAInner (tav nd) (tat nd) (tau nd) (tae nd).

Section TddDag.
Variable slm : list N.
Variable terms : list tterm.
Let T := N.of_nat (length terms).

Definition taref (id : N) : tref :=
  if id <=? T then TRTerm (nth (N.to_nat (id - 1)) terms TUnknown) else TRNode (id - T - 1).

Definition tsref (z : Z) : tref := taref (Z.abs_N z).

Definition tacn (nd : tainode) : tnode :=
  mkTN (lvl slm (tav nd)) (tsref (tat nd)) (tsref (tau nd)) (tsref (tae nd)).

Definition tnodes_upto (j : nat) : list tref :=
  map TRTerm terms ++ map (fun i => TRNode (N.of_nat i)) (seq 0 j).

(** state of the reader after the terminals and the first [j] inner nodes *)
Definition tstate (l : list tainode) (j : nat) : tst := mkTS (map tacn (firstn j l)) (tnodes_upto j).

Definition tchild_ok (l : list tainode) (j : nat) (v : N) (c : Z) : Prop :=
  (0 < c)%Z /\ Z.abs_N c < T + 1 + N.of_nat j /\
  (T < Z.abs_N c -> exists nd', nth_error l (N.to_nat (Z.abs_N c - T - 1)) = Some nd' /\ v < tav nd').

Definition twf_at (l : list tainode) (j : nat) (nd : tainode) : Prop :=
  tav nd < N.of_nat (length slm) /\
  tchild_ok l j (tav nd) (tat nd) /\ tchild_ok l j (tav nd) (tau nd) /\ tchild_ok l j (tav nd) (tae nd) /\
  ~ (tsref (tat nd) = tsref (tau nd) /\ tsref (tau nd) = tsref (tae nd)).

(** reduced (no node with three equal children), no duplicate nodes, children first, ordered *)
Definition twf_dag (l : list tainode) : Prop :=
  NoDup (map tacn l) /\ forall j nd, nth_error l j = Some nd -> twf_at l j nd.

Hypothesis slm_incr : incr slm.
Hypothesis slm_max : Forall (fun x => x < level_max) slm.

Lemma tnodes_upto_S j : tnodes_upto (S j) = tnodes_upto j ++ [TRNode (N.of_nat j)].
Proof. unfold tnodes_upto. rewrite seq_S, map_app, app_assoc. reflexivity. Qed.

Lemma nth_error_tnodes j id : 1 <= id -> id < T + 1 + N.of_nat j ->
  nth_error (tnodes_upto j) (N.to_nat (id - 1)) = Some (taref id).
Proof.
  intros H1 H2. unfold tnodes_upto, taref. destruct (N.leb_spec id T).
  - rewrite nth_error_app1 by (rewrite map_length; subst T; lia).
    rewrite nth_error_map. rewrite nth_error_nth' with (d := TUnknown) by (subst T; lia). reflexivity.
  - rewrite nth_error_app2 by (rewrite map_length; subst T; lia). rewrite map_length.
    replace (N.to_nat (id - 1) - length terms)%nat with (N.to_nat (id - T - 1)) by (subst T; lia).
    rewrite nth_error_map.
    rewrite nth_error_nth' with (d := O) by (rewrite seq_length; lia).
    rewrite seq_nth by lia. cbn. rewrite N2Nat.id. reflexivity.
Qed.

Lemma taref_level l j id : 1 <= id -> id < T + 1 + N.of_nat j -> (j <= length l)%nat ->
  tref_level (ts_store (tstate l j)) (taref id) =
  if id <=? T then level_max
  else match nth_error l (N.to_nat (id - T - 1)) with Some nd' => lvl slm (tav nd') | None => level_max end.
Proof.
  intros H1 H2 Hj. unfold taref, tref_level. destruct (N.leb_spec id T); [reflexivity|].
  unfold tstate. cbn [ts_store].
  rewrite nth_error_map, nth_error_firstn by lia.
  destruct (nth_error l (N.to_nat (id - T - 1))); reflexivity.
Qed.

Lemma tdd_mk_node_fresh store level t u e :
  ~ (t = u /\ u = e) -> (forall x, In x store -> x <> mkTN level t u e) ->
  tdd_mk_node store level t u e = (store ++ [mkTN level t u e], TRNode (N.of_nat (length store))).
Proof.
  intros Hn Hnew. unfold tdd_mk_node.
  destruct (tref_eqb t u && tref_eqb u e) eqn:E.
  - apply andb_true_iff in E. destruct E as [E1 E2]. apply tref_eqb_eq in E1, E2. tauto.
  - apply tdd_find_or_add_fresh. exact Hnew.
Qed.

(** checks and edge of one child reference *)
Lemma tchild_steps l j v c : (j <= length l)%nat ->
  (forall j nd, nth_error l j = Some nd -> twf_at l j nd) ->
  v < N.of_nat (length slm) ->
  tchild_ok l j v c ->
  tdd_child_check (tstate l j) (T + 1 + N.of_nat j) (lvl slm v) c = Ok (tsref c) /\
  tdd_child_edge (tsref c) c = Ok (tsref c).
Proof.
  intros Hj Hwf Hv (Hc0 & Hc1 & Hc2).
  assert (H1 : 1 <= Z.abs_N c) by lia.
  split.
  - unfold tdd_child_check, tnode_at, tsref.
    destruct (N.leb_spec (T + 1 + N.of_nat j) (Z.abs_N c)); [lia|].
    unfold tstate at 1. cbn [ts_nodes].
    rewrite nth_error_tnodes by assumption. cbn [bind].
    rewrite taref_level by assumption.
    destruct (N.leb_spec (Z.abs_N c) T).
    + pose proof (lvl_lt_max slm v slm_max Hv). destruct (N.leb_spec level_max (lvl slm v)); [lia|reflexivity].
    + destruct (Hc2 ltac:(assumption)) as (nd' & Hn & Hlt). rewrite Hn.
      assert (tav nd' < N.of_nat (length slm)) by (apply (Hwf _ _ Hn)).
      pose proof (lvl_lt slm _ _ slm_incr Hlt ltac:(assumption)).
      destruct (N.leb_spec (lvl slm (tav nd')) (lvl slm v)); [lia|reflexivity].
  - unfold tdd_child_edge. destruct (Z.ltb_spec c 0); [lia|reflexivity].
Qed.

(** the decoder reads an inner node line of the exporter; with three children the arity check
    of the code passes as well, so both readers agree on these lines *)
Theorem tdd_import_line_inner : forall strict l j nd,
  twf_dag l -> nth_error l j = Some nd ->
  T + 1 + N.of_nat j <= isize_max -> N.of_nat (length slm) <= 4294967296 ->
  tdd_import_line strict true slm (tstate l j) (T + 1 + N.of_nat j)
                  (tinner_text (T + 1 + N.of_nat j) (tav nd) (tat nd) (tau nd) (tae nd))
  = Ok (tstate l (S j)).
Proof.
  intros strict l j nd [Hnodup Hwf] Hn Hid Hns.
  destruct (Hwf j nd Hn) as (Hv & Hct & Hcu & Hce & Hnf).
  assert (Hj : (j < length l)%nat) by (apply nth_error_Some; congruence).
  assert (Hidu : T + 1 + N.of_nat j < usize_limit) by (unfold isize_max, usize_limit in *; lia).
  unfold tdd_import_line, tinner_text.
  change ([32] ++ dec (tav nd) ++ [32] ++ dec_z (tat nd) ++ [32] ++ dec_z (tau nd) ++ [32] ++ dec_z (tae nd))
    with ([32] ++ dec (tav nd) ++ 32 :: (dec_z (tat nd) ++ [32] ++ dec_z (tau nd) ++ [32] ++ dec_z (tae nd))).
  rewrite line_head by (try assumption; apply token_dec). cbn [bind]. rewrite N.eqb_refl. cbn [negb].
  rewrite trim_start_sp_token by apply token_dec. cbn [bind].
  rewrite trim_start_token by apply token_dec.
  rewrite split_sp_token by apply token_dec.
  pose proof Hct as (Ht0 & Ht1 & _). pose proof Hcu as (Hu0 & Hu1 & _). pose proof Hce as (He0 & He1 & _).
  rewrite parse_edge_list_three by lia. cbn [bind length Nat.eqb negb andb].
  rewrite andb_false_r.
  cbn [existsb].
  destruct (Z.eqb_spec 0 (tat nd)); [lia|]. destruct (Z.eqb_spec 0 (tau nd)); [lia|].
  destruct (Z.eqb_spec 0 (tae nd)); [lia|]. cbn [orb].
  rewrite parse_u32_dec by lia. cbn [bind].
  rewrite lvl_nth_error by assumption.
  destruct (tchild_steps l j (tav nd) (tat nd) ltac:(lia) Hwf Hv Hct) as [Hc1 Hd1].
  destruct (tchild_steps l j (tav nd) (tau nd) ltac:(lia) Hwf Hv Hcu) as [Hc2 Hd2].
  destruct (tchild_steps l j (tav nd) (tae nd) ltac:(lia) Hwf Hv Hce) as [Hc3 Hd3].
  rewrite Hc1. cbn [bind]. rewrite Hc2. cbn [bind]. rewrite Hc3. cbn [bind].
  rewrite Hd1. cbn [bind]. rewrite Hd2. cbn [bind]. rewrite Hd3. cbn [bind].
  rewrite tdd_mk_node_fresh.
  - unfold tstate. cbn [ts_store ts_nodes].
    rewrite map_length, firstn_length, Nat.min_l by lia.
    rewrite (firstn_snoc l j nd Hn), map_app, tnodes_upto_S. reflexivity.
  - exact Hnf.
  - intros x Hx ->. exact (NoDup_map_firstn tacn l j nd Hnodup Hn Hx).
Qed.

End TddDag.

(** ** the whole node section *)

Definition tdd_step (strict vin : bool) (slm : list N) (st : tst) (id : N) (inp : list byte)
  : res (tst * list byte) :=
  '(line, inp') <- read_line inp ;; st' <- tdd_import_line strict vin slm st id line ;; Ok (st', inp').

Lemma tdd_import_loop_S strict vin slm n id st inp :
  tdd_import_loop strict vin slm (S n) id st inp =
  '(st', inp') <- tdd_step strict vin slm st id inp ;; tdd_import_loop strict vin slm n (id + 1) st' inp'.
Proof.
  cbn [tdd_import_loop]. unfold tdd_step.
  destruct (read_line inp) as [[line inp']|]; cbn [bind]; [|reflexivity].
  destruct (tdd_import_line strict vin slm st id line); reflexivity.
Qed.

Definition tterm_nodes (terms : list tterm) : list tanode := map (fun v => TATerm (tdd_desc v)) terms.

Lemma tdd_loop_terms : forall slm terms rest,
  N.of_nat (length terms) < usize_limit ->
  tdd_import_loop false true slm (length terms) 1 (mkTS [] []) (tdd_export_from 1 (tterm_nodes terms) ++ rest)
  = Ok (mkTS [] (map TRTerm terms), rest).
Proof.
  intros slm terms rest Hlim.
  rewrite <- (firstn_all terms) at 3.
  apply (loop_print (tdd_step false true slm) (tdd_import_loop false true slm)
           (fun id v => tdd_export_line id (TATerm (tdd_desc v))) (fun id r => tdd_export_from id (tterm_nodes r))
           (fun _ _ _ => eq_refl) (tdd_import_loop_S false true slm) (fun _ => eq_refl) (fun _ _ _ => eq_refl)
           (fun i => mkTS [] (map TRTerm (firstn i terms))) terms 1 rest) with (n := length terms) (j := O);
    [|reflexivity].
  intros i v tail Hv. assert (i < length terms)%nat by (apply nth_error_Some; congruence).
  unfold tdd_step. rewrite tdd_export_line_term, read_line_term by apply tdd_desc_no_nl. cbn [bind].
  rewrite (tdd_import_line_term slm _ _ (tdd_desc v) (TRTerm v))
    by (try apply tdd_desc_token; try apply tdd_parse_desc; lia).
  cbn [bind ts_store ts_nodes]. rewrite (firstn_snoc terms i v Hv), map_app. reflexivity.
Qed.

Lemma tstate_0 slm terms l : tstate slm terms l 0 = mkTS [] (map TRTerm terms).
Proof. unfold tstate, tnodes_upto. cbn [firstn map seq]. rewrite app_nil_r. reflexivity. Qed.

Lemma tdd_loop_inner : forall strict slm terms l rest,
  incr slm -> Forall (fun x => x < level_max) slm ->
  twf_dag slm terms l ->
  N.of_nat (length terms) + 1 + N.of_nat (length l) <= isize_max ->
  N.of_nat (length slm) <= 4294967296 ->
  tdd_import_loop strict true slm (length l) (N.of_nat (length terms) + 1 + N.of_nat 0) (tstate slm terms l 0)
    (tdd_export_from (N.of_nat (length terms) + 1 + N.of_nat 0) (map tainner l) ++ rest)
  = Ok (tstate slm terms l (length l), rest).
Proof.
  intros strict slm terms l rest Hi Hf Hwf Hlim Hns.
  apply (loop_print (tdd_step strict true slm) (tdd_import_loop strict true slm)
           (fun id nd => tdd_export_line id (tainner nd)) (fun id r => tdd_export_from id (map tainner r))
           (fun _ _ _ => eq_refl) (tdd_import_loop_S strict true slm) (fun _ => eq_refl) (fun _ _ _ => eq_refl)
           (tstate slm terms l) l (N.of_nat (length terms) + 1) rest) with (n := length l) (j := O); [|reflexivity].
  intros j nd tail Hn. assert (j < length l)%nat by (apply nth_error_Some; congruence).
  unfold tdd_step, tainner. rewrite tdd_export_line_inner, read_line_tinner. cbn [bind].
  rewrite (tdd_import_line_inner slm terms Hi Hf strict l j nd Hwf Hn) by lia. reflexivity.
Qed.

(** THE ROUND TRIP OF THE NODE SECTION.  The decoder reads the exporter's ASCII node section of
    a ternary diagram back: the terminal lines become the terminals, node ID [T + 1 + i]
    denotes entry [i] of the unique table, which holds exactly the exported nodes (same
    levels, same three children), and nothing after the section is consumed. *)
Theorem tdd_import_export_nodes : forall slm terms l rest,
  incr slm -> Forall (fun x => x < level_max) slm ->
  twf_dag slm terms l ->
  N.of_nat (length terms) + 1 + N.of_nat (length l) <= isize_max ->
  N.of_nat (length slm) <= 4294967296 ->
  tdd_import_ascii false true slm (N.of_nat (length terms + length l))
                   (tdd_export_nodes (tterm_nodes terms ++ map tainner l) ++ rest)
  = Ok (tstate slm terms l (length l), rest).
Proof.
  intros slm terms l rest Hi Hf Hwf Hlim Hns.
  unfold tdd_import_ascii, tdd_export_nodes. rewrite Nat2N.id.
  rewrite (loop_add (tdd_step false true slm) (tdd_import_loop false true slm)
             (fun _ _ _ => eq_refl) (tdd_import_loop_S false true slm)),
          (print_from_app tdd_export_line tdd_export_from (fun _ => eq_refl) (fun _ _ _ => eq_refl)),
          <- app_assoc.
  unfold tterm_nodes at 2. rewrite map_length.
  unfold tdd_empty. rewrite tdd_loop_terms by (unfold isize_max, usize_limit in *; lia).
  cbn [bind fst snd]. rewrite <- (tstate_0 slm terms l).
  replace (1 + N.of_nat (length terms)) with (N.of_nat (length terms) + 1 + N.of_nat 0) by lia.
  apply tdd_loop_inner; assumption.
Qed.

(** a diagram with an inner node has a terminal (the children of the first node) *)
Lemma twf_dag_terms slm terms l : twf_dag slm terms l -> l <> [] -> terms <> [].
Proof.
  intros [_ Hwf] Hl Ht. subst terms. destruct l as [|nd l]; [contradiction|].
  destruct (Hwf O nd eq_refl) as (_ & (H0 & H1 & _) & _). cbn in H1. lia.
Qed.

(** WHAT THE CODE DOES: [import_ascii] with [ARITY = 3] stops at the first line of every
    non-empty node section the exporter writes (a terminal line with two zeros) with
    "expected 3 children, got 2" *)
Theorem tdd_strict_rejects_export : forall slm terms l rest,
  twf_dag slm terms l -> (length terms + length l <> 0)%nat ->
  N.of_nat (length terms) < usize_limit ->
  tdd_import_ascii true true slm (N.of_nat (length terms + length l))
                   (tdd_export_nodes (tterm_nodes terms ++ map tainner l) ++ rest)
  = Err EArity.
Proof.
  intros slm terms l rest Hwf Hn Hlim.
  assert (Ht : terms <> []).
  { destruct l as [|nd l]; [destruct terms; [cbn in Hn; lia|discriminate]|].
    eapply twf_dag_terms; [exact Hwf|discriminate]. }
  destruct terms as [|v terms]; [contradiction|].
  unfold tdd_import_ascii, tdd_export_nodes. rewrite Nat2N.id.
  cbn [length Nat.add tterm_nodes map app tdd_export_from tdd_import_loop].
  rewrite tdd_export_line_term.
  rewrite <- app_assoc, read_line_term by apply tdd_desc_no_nl. cbn [bind].
  rewrite tdd_import_line_term_strict; [reflexivity|unfold usize_limit; lia|apply tdd_desc_token].
Qed.

(** ** the whole file *)

(** root references of a TDD file: positive (no complement edges) and in range *)
Definition troot_ok (terms : list tterm) (l : list tainode) (r : Z) : Prop :=
  (0 < r)%Z /\ Z.abs_N r <= N.of_nat (length terms) + N.of_nat (length l).

Lemma tdd_import_roots_tstate slm terms l : forall rootids,
  Forall (troot_ok terms l) rootids ->
  tdd_import_roots (tstate slm terms l (length l)) rootids = Ok (map (tsref terms) rootids).
Proof.
  induction 1 as [|r rs (H0 & Hr) _ IH]; [reflexivity|]. cbn [tdd_import_roots map].
  destruct (Z.eqb_spec r 0); [lia|].
  change (ts_nodes (tstate slm terms l (length l))) with (tnodes_upto terms (length l)).
  rewrite nth_error_tnodes by lia. cbn [bind].
  destruct (Z.ltb_spec r 0); [lia|]. cbn [bind]. rewrite IH. reflexivity.
Qed.

(** THE WHOLE-FILE ROUND TRIP: header + ASCII node section + [.end] written by the exporter
    models for a ternary diagram are read back to the header [header_of x], exactly the exported
    nodes and exactly the exported roots. *)
Theorem tdd_import_export_whole x slm terms l :
  xwf x -> x_ascii x = true ->
  x_nnodes x = N.of_nat (length terms + length l) ->
  length slm = length (x_ids x) ->
  incr slm -> Forall (fun v => v < level_max) slm ->
  twf_dag slm terms l ->
  N.of_nat (length terms) + 1 + N.of_nat (length l) <= isize_max ->
  N.of_nat (length slm) <= 4294967296 ->
  Forall (troot_ok terms l) (x_rootids x) ->
  tdd_import_whole false slm (tdd_export_whole x (tterm_nodes terms ++ map tainner l))
  = TOk (header_of x, tstate slm terms l (length l), map (tsref terms) (x_rootids x)).
Proof.
  intros Hx Ha Hn Hs Hi Hm Hwf L1 L2 Hr. unfold tdd_import_whole, tdd_export_whole.
  rewrite (load_print_header x _ Hx).
  change (h_ids (header_of x)) with (x_ids x). rewrite (proj2 (Nat.eqb_eq _ _) Hs). cbn [negb].
  change (h_ascii (header_of x)) with (x_ascii x). rewrite Ha. cbn [negb].
  unfold tdd_import_body, tdd_import_file.
  change (h_nnodes (header_of x)) with (x_nnodes x). rewrite Hn.
  change (h_rootids (header_of x)) with (x_rootids x).
  change (varinfo_none (h_varinfo (header_of x))) with true.
  rewrite (tdd_import_export_nodes slm terms l) by assumption. cbn [bind].
  change (reads_end end_line) with true. cbn [negb].
  rewrite tdd_import_roots_tstate by assumption. reflexivity.
Qed.

(** ... and the reader of the code rejects every such file that contains a node *)
Theorem tdd_strict_rejects_whole x slm terms l :
  xwf x -> x_ascii x = true ->
  x_nnodes x = N.of_nat (length terms + length l) -> (length terms + length l <> 0)%nat ->
  length slm = length (x_ids x) ->
  twf_dag slm terms l ->
  tdd_import_whole true slm (tdd_export_whole x (tterm_nodes terms ++ map tainner l)) = TBody EArity.
Proof.
  intros Hx Ha Hn Hne Hs Hwf. unfold tdd_import_whole, tdd_export_whole.
  rewrite (load_print_header x _ Hx).
  change (h_ids (header_of x)) with (x_ids x). rewrite (proj2 (Nat.eqb_eq _ _) Hs). cbn [negb].
  change (h_ascii (header_of x)) with (x_ascii x). rewrite Ha. cbn [negb].
  unfold tdd_import_body, tdd_import_file.
  change (h_nnodes (header_of x)) with (x_nnodes x). rewrite Hn.
  change (varinfo_none (h_varinfo (header_of x))) with true.
  rewrite (tdd_strict_rejects_export slm terms l); [reflexivity|assumption|assumption|].
  pose proof (xw_nnodes x Hx) as Hl. rewrite Hn in Hl. lia.
Qed.

(** a binary-mode header is never followed by a ternary node section the importer could read *)
Theorem tdd_binary_rejected strict slm inp h rest :
  load_header inp = HOk (h, rest) -> length slm = length (h_ids h) -> h_ascii h = false ->
  tdd_import_whole strict slm inp = TBinary.
Proof.
  intros L Hs Ha. unfold tdd_import_whole. rewrite L, (proj2 (Nat.eqb_eq _ _) Hs), Ha. reflexivity.
Qed.
