(** * C15 (package C15t): the TDD reader on ARBITRARY bytes

    - no internal error: the reader never reaches a state in which the Rust code would index
      out of bounds ([nodes[child - 1]]) — for both variants of the arity check;
    - safety of acceptance: whatever is accepted is a well-formed ternary diagram (children
      before parents, levels strictly increasing along all three edges, levels from the
      support), one valid reference per node ID, valid roots, and every root denotes a
      well-defined three-valued function;
    - the reader of the code ([strict = true]) is a restriction of the decoder
      ([strict = false]): same result whenever it accepts;
    - [TDDRules::reduce] + unique table preserve the meaning. *)
From Coq Require Import List NArith ZArith Bool Arith Lia.
From OxiVerif Require Import Base.ListFacts IO.Dddmp IO.DddmpProofs IO.DddmpFile IO.DddmpFileProofs IO.DddmpFileSafety
  IO.DddmpFileNoPanic IO.DddmpTdd IO.DddmpTddProofs.
Import ListNotations.
Open Scope N_scope.

(** ** well-formed ternary unique tables *)

Definition tref_in (s : list tnode) (r : tref) : Prop :=
  match r with TRTerm _ => True | TRNode i => (N.to_nat i < length s)%nat end.

Definition tref_below (i : nat) (r : tref) : Prop :=
  match r with TRTerm _ => True | TRNode j => (N.to_nat j < i)%nat end.

Definition tnode_ok (s : list tnode) (i : nat) (n : tnode) : Prop :=
  tref_below i (tn_t n) /\ tref_below i (tn_u n) /\ tref_below i (tn_e n) /\
  tn_level n < tref_level s (tn_t n) /\ tn_level n < tref_level s (tn_u n) /\ tn_level n < tref_level s (tn_e n).

(** children first (acyclic) and levels strictly increasing along edges *)
Definition tstore_wf (s : list tnode) : Prop :=
  forall i n, nth_error s i = Some n -> tnode_ok s i n.

Definition tlevels_in (slm : list N) (s : list tnode) : Prop :=
  Forall (fun n => In (tn_level n) slm) s.

Definition text (s s' : list tnode) : Prop := exists x, s' = s ++ x.

Lemma text_refl s : text s s.
Proof. exists []. now rewrite app_nil_r. Qed.

Lemma text_trans a b c : text a b -> text b c -> text a c.
Proof. intros [x ->] [y ->]. exists (x ++ y). now rewrite app_assoc. Qed.

Lemma text_snoc s n : text s (s ++ [n]).
Proof. now exists [n]. Qed.

Lemma tref_in_ext s s' r : text s s' -> tref_in s r -> tref_in s' r.
Proof. intros [x ->]. destruct r; cbn; [trivial|]. rewrite app_length. lia. Qed.

Lemma tref_level_ext s s' r : text s s' -> tref_in s r -> tref_level s' r = tref_level s r.
Proof.
  intros [x ->]. destruct r as [v|i]; cbn; [reflexivity|]. intros H. rewrite nth_error_app1 by exact H. reflexivity.
Qed.

Lemma tref_below_in s i r : (i <= length s)%nat -> tref_below i r -> tref_in s r.
Proof. destruct r; cbn; [trivial|lia]. Qed.

Lemma tref_below_mono i j r : (i <= j)%nat -> tref_below i r -> tref_below j r.
Proof. destruct r; cbn; [trivial|lia]. Qed.

Lemma tstore_wf_nil : tstore_wf [].
Proof. intros [|i] n H; discriminate. Qed.

Lemma tstore_wf_snoc s n :
  tstore_wf s -> tref_in s (tn_t n) -> tref_in s (tn_u n) -> tref_in s (tn_e n) ->
  tn_level n < tref_level s (tn_t n) -> tn_level n < tref_level s (tn_u n) -> tn_level n < tref_level s (tn_e n) ->
  tstore_wf (s ++ [n]).
Proof.
  intros Hwf It Iu Ie Lt Lu Le i m Hi.
  assert (Hm : tref_below i (tn_t m) /\ tref_below i (tn_u m) /\ tref_below i (tn_e m) /\
               tref_in s (tn_t m) /\ tref_in s (tn_u m) /\ tref_in s (tn_e m) /\
               tn_level m < tref_level s (tn_t m) /\ tn_level m < tref_level s (tn_u m) /\
               tn_level m < tref_level s (tn_e m)).
  { destruct (nth_error_snoc _ _ _ _ Hi) as [[Hlt Hi']|[-> ->]].
    - destruct (Hwf i m Hi') as (R1 & R2 & R3 & L1 & L2 & L3).
      splits; try assumption; (eapply tref_below_in; [|eassumption]; lia).
    - splits; assumption. }
  destruct Hm as (R1 & R2 & R3 & I1 & I2 & I3 & L1 & L2 & L3).
  unfold tnode_ok. rewrite !(tref_level_ext s (s ++ [n])) by (auto using text_snoc). splits; assumption.
Qed.

Lemma tdd_find_or_add_spec s n s' r :
  tdd_find_or_add s n = (s', r) ->
  exists i, r = TRNode i /\ nth_error s' (N.to_nat i) = Some n /\ (s' = s \/ s' = s ++ [n]).
Proof.
  unfold tdd_find_or_add. destruct (find_index (tnode_eqb n) s 0) as [k|] eqn:E; intros H; inversion H; subst.
  - destruct (find_index_some _ _ _ _ E) as (x & Hx & Hp & _).
    rewrite N.sub_0_r in Hx. apply tnode_eqb_eq in Hp. subst x.
    exists k. splits; [exact Hx|left; reflexivity].
  - exists (N.of_nat (length s)). rewrite Nat2N.id. splits.
    + rewrite nth_error_app2 by lia. rewrite Nat.sub_diag. reflexivity.
    + right; reflexivity.
Qed.

(** [TDDRules::reduce] + [then_insert]: the table stays well-formed, the result is a valid
    reference whose level is not above [level] *)
Lemma tdd_mk_node_wf slm s level t u e s' r :
  tstore_wf s -> tlevels_in slm s -> In level slm ->
  tref_in s t -> tref_in s u -> tref_in s e ->
  level < tref_level s t -> level < tref_level s u -> level < tref_level s e ->
  tdd_mk_node s level t u e = (s', r) ->
  tstore_wf s' /\ tlevels_in slm s' /\ text s s' /\ tref_in s' r /\ level <= tref_level s' r.
Proof.
  intros Hwf Hl Hin It Iu Ie Lt Lu Le H. unfold tdd_mk_node in H.
  destruct (tref_eqb t u && tref_eqb u e).
  - inversion H; subst. splits; try assumption; [apply text_refl|lia].
  - destruct (tdd_find_or_add_spec _ _ _ _ H) as (i & -> & Hnth & Hs').
    assert (Hr : tref_in s' (TRNode i) /\ level <= tref_level s' (TRNode i)).
    { split; cbn; [apply nth_error_Some; congruence|rewrite Hnth; cbn; lia]. }
    destruct Hr as [Ri Rl]. destruct Hs' as [->| ->]; splits; try assumption.
    + apply text_refl.
    + apply tstore_wf_snoc; assumption.
    + apply Forall_app. split; [exact Hl|]. constructor; [exact Hin|constructor].
    + apply text_snoc.
Qed.

(** ** the invariant of the node loop *)

Record tst_ok (slm : list N) (st : tst) (node_id : N) : Prop := {
  tk_store : tstore_wf (ts_store st);
  tk_levels : tlevels_in slm (ts_store st);
  tk_nodes : Forall (tref_in (ts_store st)) (ts_nodes st);
  tk_id : N.of_nat (length (ts_nodes st)) + 1 = node_id
}.

Lemma tst_ok_empty slm : tst_ok slm tdd_empty 1.
Proof. split; [apply tstore_wf_nil|constructor|constructor|reflexivity]. Qed.

Lemma tst_ok_push slm st node_id s' r :
  tst_ok slm st node_id -> tstore_wf s' -> tlevels_in slm s' -> text (ts_store st) s' -> tref_in s' r ->
  tst_ok slm (mkTS s' (ts_nodes st ++ [r])) (node_id + 1).
Proof.
  intros [_ _ Hn Hid] W L X R. split; cbn; try assumption.
  - apply Forall_app. split; [|constructor; [exact R|constructor]].
    eapply Forall_impl; [|exact Hn]. intros a. apply tref_in_ext. exact X.
  - rewrite app_length. cbn. lia.
Qed.

Lemma tdd_child_check_ok slm st node_id level child :
  tst_ok slm st node_id -> child <> 0%Z ->
  ni_and (tdd_child_check st node_id level child)
         (fun r => tref_in (ts_store st) r /\ level < tref_level (ts_store st) r).
Proof.
  intros Hok Hc. unfold tdd_child_check, tnode_at. pose proof (tk_id _ _ _ Hok) as Hid.
  destruct (N.leb_spec node_id (Z.abs_N child)); [apply ni_and_err; discriminate|].
  destruct (nth_error (ts_nodes st) (N.to_nat (Z.abs_N child - 1))) as [x|] eqn:E;
    [|apply nth_error_None in E; lia].
  cbn [bind]. destruct (N.leb_spec (tref_level (ts_store st) x) level); [apply ni_and_err; discriminate|].
  apply ni_and_ok. split; [|assumption].
  pose proof (tk_nodes _ _ _ Hok) as Hn. rewrite Forall_forall in Hn. apply Hn. eapply nth_error_In. exact E.
Qed.

Lemma tdd_child_edge_spec r child : ni_and (tdd_child_edge r child) (fun r' => r' = r).
Proof.
  unfold tdd_child_edge, tdd_complement. destruct (child <? 0)%Z; [apply ni_and_err; discriminate|].
  apply ni_and_ok. reflexivity.
Qed.

Lemma existsb_zero_false : forall cs, existsb (Z.eqb 0) cs = false -> Forall (fun c => c <> 0%Z) cs.
Proof.
  induction cs as [|c cs IH]; cbn [existsb]; intros H; [constructor|].
  apply orb_false_iff in H. destruct H as [H1 H2]. constructor; [|apply IH; exact H2].
  intros ->. discriminate.
Qed.

Lemma tdd_parse_terminal_term tok r : tdd_parse_terminal tok = Some r -> exists v, r = TRTerm v.
Proof.
  unfold tdd_parse_terminal.
  destruct (one_of tok false_lits); [intros H; inversion H; eauto|].
  destruct (one_of tok unknown_lits); [intros H; inversion H; eauto|].
  destruct (one_of tok true_lits); [intros H; inversion H; eauto|discriminate].
Qed.

(** one line: no internal error; an accepted line keeps the invariant and extends the table *)
Lemma tdd_import_line_ok strict vin slm st node_id line :
  tst_ok slm st node_id ->
  ni_and (tdd_import_line strict vin slm st node_id line)
         (fun st' => tst_ok slm st' (node_id + 1) /\ text (ts_store st) (ts_store st')).
Proof.
  intros Hok. unfold tdd_import_line.
  apply ni_bind; [apply (parse_unsigned_go_ni usize_limit line 0 false)|]. intros [rest nid] _.
  destruct (negb (nid =? node_id)); [apply ni_and_err; discriminate|].
  apply ni_bind.
  { destruct vin; [discriminate|destruct (split_sp (trim_start rest)) as [[? ?]|]; discriminate]. }
  intros rest1 _.
  destruct (split_sp (trim_start rest1)) as [[var_tok rest2]|]; [|apply ni_and_err; discriminate].
  apply ni_bind; [apply (parse_edge_list_go_ni rest2 0 false false [])|]. intros children _.
  destruct (strict && negb (Nat.eqb (length children) 3)); [apply ni_and_err; discriminate|].
  destruct (existsb (Z.eqb 0) children) eqn:Ez.
  - destruct (tdd_parse_terminal var_tok) as [r|] eqn:Et; [|apply ni_and_err; discriminate].
    apply ni_and_ok. destruct (tdd_parse_terminal_term _ _ Et) as [v ->]. split; [|apply text_refl].
    apply (tst_ok_push slm st node_id (ts_store st)); try apply Hok; [apply text_refl|exact I].
  - apply existsb_zero_false in Ez.
    destruct children as [|c1 [|c2 [|c3 [|c4 cs]]]]; try (apply ni_and_err; discriminate).
    inversion Ez as [|? ? Hc1 Ez1]; subst. inversion Ez1 as [|? ? Hc2 Ez2]; subst. inversion Ez2 as [|? ? Hc3 _]; subst.
    apply ni_bind; [apply (parse_unsigned_go_ni 4294967296 var_tok 0 false)|]. intros [r0 var_id] _.
    destruct (nth_error slm (N.to_nat var_id)) as [level|] eqn:El; [|apply ni_and_err; discriminate].
    eapply ni_and_bind; [exact (tdd_child_check_ok slm st node_id level c1 Hok Hc1)|]. intros r1 _ [In1 L1].
    eapply ni_and_bind; [exact (tdd_child_check_ok slm st node_id level c2 Hok Hc2)|]. intros r2 _ [In2 L2].
    eapply ni_and_bind; [exact (tdd_child_check_ok slm st node_id level c3 Hok Hc3)|]. intros r3 _ [In3 L3].
    eapply ni_and_bind; [apply tdd_child_edge_spec|]. intros ? _ ->.
    eapply ni_and_bind; [apply tdd_child_edge_spec|]. intros ? _ ->.
    eapply ni_and_bind; [apply tdd_child_edge_spec|]. intros ? _ ->.
    destruct (tdd_mk_node (ts_store st) level r1 r2 r3) as [s3 r] eqn:M.
    destruct (tdd_mk_node_wf slm _ level r1 r2 r3 s3 r (tk_store _ _ _ Hok) (tk_levels _ _ _ Hok)
                (nth_error_In _ _ El) In1 In2 In3 L1 L2 L3 M) as (W & L & X & Ir & _).
    apply ni_and_ok. split; [|exact X]. apply (tst_ok_push slm st node_id s3); assumption.
Qed.

Lemma tdd_import_loop_ok strict vin slm : forall n node_id st inp, tst_ok slm st node_id ->
  ni_and (tdd_import_loop strict vin slm n node_id st inp)
         (fun r => tst_ok slm (fst r) (node_id + N.of_nat n) /\ text (ts_store st) (ts_store (fst r)) /\
                   (length (snd r) + n <= length inp)%nat).
Proof.
  induction n as [|n IH]; intros node_id st inp Hok; cbn [tdd_import_loop].
  - apply ni_and_ok. cbn [fst snd]. rewrite N.add_0_r. splits; [exact Hok|apply text_refl|lia].
  - apply ni_bind; [apply read_line_ni|]. intros [line inp1] R. apply read_line_shorter in R.
    eapply ni_and_bind; [exact (tdd_import_line_ok strict vin slm st node_id line Hok)|]. intros st1 _ [Hok1 X1].
    eapply ni_and_impl; [|exact (IH (node_id + 1) st1 inp1 Hok1)].
    intros [st' inp'] _ (A & B & C). cbn [fst snd] in *.
    replace (node_id + N.of_nat (S n)) with (node_id + 1 + N.of_nat n) by lia.
    splits; [exact A|eapply text_trans; eassumption|lia].
Qed.

Lemma tdd_import_roots_ok slm st node_id : tst_ok slm st node_id -> forall rootids,
  ni_and (tdd_import_roots st rootids)
         (fun roots => Forall (tref_in (ts_store st)) roots /\ length roots = length rootids /\
                       Forall (fun r => (0 < r)%Z /\ Z.abs_N r + 1 <= node_id) rootids).
Proof.
  intros Hok. induction rootids as [|r rs IH]; cbn [tdd_import_roots].
  - apply ni_and_ok. splits; constructor.
  - destruct (Z.eqb_spec r 0); [apply ni_and_err; discriminate|].
    destruct (nth_error (ts_nodes st) (N.to_nat (Z.abs_N r - 1))) as [e|] eqn:E; cbn [bind]; [|apply ni_and_err; discriminate].
    unfold tdd_complement. destruct (Z.ltb_spec r 0); cbn [bind]; [apply ni_and_err; discriminate|].
    eapply ni_and_bind; [exact IH|]. intros es _ (F & L & R).
    apply ni_and_ok. splits.
    + constructor; [|exact F]. pose proof (tk_nodes _ _ _ Hok) as Hn. rewrite Forall_forall in Hn.
      apply Hn. eapply nth_error_In. exact E.
    + cbn. lia.
    + constructor; [|exact R]. split; [lia|].
      assert ((N.to_nat (Z.abs_N r - 1) < length (ts_nodes st))%nat) by (apply nth_error_Some; congruence).
      pose proof (tk_id _ _ _ Hok). lia.
Qed.

(** ** NO INTERNAL ERROR + SAFETY OF ACCEPTANCE, node section + trailer + roots, arbitrary input *)
Theorem tdd_import_file_safe strict vin slm nnodes rootids inp :
  tdd_import_file strict vin slm nnodes rootids inp <> Err EInternal /\
  forall st roots, tdd_import_file strict vin slm nnodes rootids inp = Ok (st, roots) ->
    tstore_wf (ts_store st) /\ tlevels_in slm (ts_store st) /\
    Forall (tref_in (ts_store st)) (ts_nodes st) /\ length (ts_nodes st) = N.to_nat nnodes /\
    Forall (tref_in (ts_store st)) roots /\ length roots = length rootids /\
    Forall (fun r => (0 < r)%Z /\ Z.abs_N r <= nnodes) rootids /\
    (N.to_nat nnodes <= length inp)%nat.
Proof.
  unfold tdd_import_file, tdd_import_ascii.
  destruct (tdd_import_loop_ok strict vin slm (N.to_nat nnodes) 1 tdd_empty inp (tst_ok_empty slm)) as [A B].
  destruct (tdd_import_loop strict vin slm (N.to_nat nnodes) 1 tdd_empty inp) as [[st0 rest]|e]; cbn [bind].
  2:{ split; [intros E; apply A; inversion E; reflexivity|discriminate]. }
  destruct (B _ eq_refl) as (Hok & _ & Hlen). cbn [fst snd] in Hok, Hlen.
  destruct (negb (reads_end rest)); [split; discriminate|].
  destruct (tdd_import_roots_ok slm st0 _ Hok rootids) as [C D].
  destruct (tdd_import_roots st0 rootids) as [roots0|e]; cbn [bind].
  2:{ split; [intros E; apply C; inversion E; reflexivity|discriminate]. }
  split; [discriminate|]. intros st roots H. inversion H; subst.
  destruct (D _ eq_refl) as (F & L & R). pose proof (tk_id _ _ _ Hok) as Hid.
  splits; try apply Hok; try assumption; try lia.
  eapply Forall_impl; [|exact R]. cbn. intros r [H0 H1]. split; [exact H0|lia].
Qed.

(** NO PANIC for the whole TDD reader: on every input it accepts or returns one of the error
    values that stand for an [io::Error] (or for the precondition / the static restriction) *)
Theorem tdd_import_whole_no_internal strict slm inp :
  tdd_import_whole strict slm inp <> THdr HInternal /\ tdd_import_whole strict slm inp <> TBody EInternal.
Proof.
  unfold tdd_import_whole. pose proof (load_header_no_internal inp) as Hl.
  destruct (load_header inp) as [[h rest]|e].
  - destruct (negb (Nat.eqb (length slm) (length (h_ids h)))); [split; discriminate|].
    destruct (negb (h_ascii h)); [split; discriminate|].
    unfold tdd_import_body.
    destruct (tdd_import_file_safe strict (varinfo_none (h_varinfo h)) slm (h_nnodes h) (h_rootids h) rest) as [Hi _].
    destruct (tdd_import_file strict (varinfo_none (h_varinfo h)) slm (h_nnodes h) (h_rootids h) rest) as [[st roots]|e];
      split; try discriminate. intros E. apply Hi. inversion E. reflexivity.
  - split; [|discriminate]. intros E. apply Hl. inversion E. reflexivity.
Qed.

(** the short cut of the extracted reader: same acceptance, same result *)
Definition tres_equiv {A} (a b : tres A) : Prop :=
  match a, b with
  | TOk x, TOk y => x = y
  | THdr _, THdr _ | TPre, TPre | TBinary, TBinary | TBody _, TBody _ => True
  | _, _ => False
  end.

Theorem tdd_import_whole_guarded_equiv strict slm inp :
  tres_equiv (tdd_import_whole strict slm inp) (tdd_import_whole_guarded strict slm inp).
Proof.
  unfold tdd_import_whole, tdd_import_whole_guarded. destruct (load_header inp) as [[h rest]|e]; [|exact I].
  destruct (negb (Nat.eqb (length slm) (length (h_ids h)))); [exact I|].
  destruct (negb (h_ascii h)); [exact I|].
  destruct (N.ltb_spec (N.of_nat (length rest)) (h_nnodes h)) as [Hlt|Hge].
  - unfold tdd_import_body.
    destruct (tdd_import_file_safe strict (varinfo_none (h_varinfo h)) slm (h_nnodes h) (h_rootids h) rest) as [_ Hs].
    destruct (tdd_import_file strict (varinfo_none (h_varinfo h)) slm (h_nnodes h) (h_rootids h) rest)
      as [[st roots]|]; [|exact I].
    exfalso. destruct (Hs _ _ eq_refl) as (_ & _ & _ & _ & _ & _ & _ & Hn). lia.
  - unfold tdd_import_body. destruct (tdd_import_file _ _ _ _ _ _) as [[st roots]|]; [reflexivity|exact I].
Qed.

(** ** the reader of the code is a restriction of the decoder *)

Lemma tdd_strict_line vin slm st node_id line st' :
  tdd_import_line true vin slm st node_id line = Ok st' ->
  tdd_import_line false vin slm st node_id line = Ok st'.
Proof.
  unfold tdd_import_line.
  destruct (parse_usize line) as [[rest nid]|]; [|discriminate]. cbn [bind].
  destruct (negb (nid =? node_id)); [discriminate|].
  match goal with |- bind ?r _ = _ -> _ => destruct r as [rest1|]; [|discriminate] end. cbn [bind].
  destruct (split_sp (trim_start rest1)) as [[var_tok rest2]|]; [|discriminate].
  destruct (parse_edge_list rest2) as [children|]; [|discriminate]. cbn [bind andb].
  destruct (negb (Nat.eqb (length children) 3)); [discriminate|]. tauto.
Qed.

Lemma tdd_strict_loop vin slm : forall n node_id st inp r,
  tdd_import_loop true vin slm n node_id st inp = Ok r ->
  tdd_import_loop false vin slm n node_id st inp = Ok r.
Proof.
  induction n as [|n IH]; intros node_id st inp r; cbn [tdd_import_loop]; [tauto|].
  destruct (read_line inp) as [[line inp1]|]; [|discriminate]. cbn [bind].
  destruct (tdd_import_line true vin slm st node_id line) as [st1|] eqn:E; [|discriminate]. cbn [bind].
  rewrite (tdd_strict_line _ _ _ _ _ _ E). cbn [bind]. apply IH.
Qed.

Theorem tdd_strict_implies_lenient slm inp x :
  tdd_import_whole true slm inp = TOk x -> tdd_import_whole false slm inp = TOk x.
Proof.
  unfold tdd_import_whole. destruct (load_header inp) as [[h rest]|]; [|discriminate].
  destruct (negb (Nat.eqb (length slm) (length (h_ids h)))); [discriminate|].
  destruct (negb (h_ascii h)); [discriminate|].
  unfold tdd_import_body, tdd_import_file, tdd_import_ascii.
  destruct (tdd_import_loop true (varinfo_none (h_varinfo h)) slm (N.to_nat (h_nnodes h)) 1 tdd_empty rest)
    as [[st0 rest0]|] eqn:E; [|discriminate].
  rewrite (tdd_strict_loop _ _ _ _ _ _ _ E). tauto.
Qed.

(** ** semantics *)

Definition tsel (v : tterm) (t u e : tref) : tref :=
  match v with TTrue => t | TUnknown => u | TFalse => e end.

(** big-step three-valued evaluation (no fuel) *)
Inductive tdenotes (s : list tnode) (env : N -> tterm) : tref -> tterm -> Prop :=
| TDTerm v : tdenotes s env (TRTerm v) v
| TDNode i n v : nth_error s (N.to_nat i) = Some n ->
    tdenotes s env (tsel (env (tn_level n)) (tn_t n) (tn_u n) (tn_e n)) v ->
    tdenotes s env (TRNode i) v.

Lemma tdenotes_det s env r v1 : tdenotes s env r v1 -> forall v2, tdenotes s env r v2 -> v1 = v2.
Proof.
  induction 1 as [v|i n v Hn Hd IH]; intros v2 H2; inversion H2; subst; [reflexivity|].
  assert (n0 = n) by congruence. subst n0. apply IH. assumption.
Qed.

Lemma tdd_eval_unfold s fuel env r :
  tdd_eval s fuel env r =
  match r with
  | TRTerm v => v
  | TRNode i =>
    match fuel with
    | O => TUnknown
    | S f => match nth_error s (N.to_nat i) with
             | None => TUnknown
             | Some n => tdd_eval s f env (tsel (env (tn_level n)) (tn_t n) (tn_u n) (tn_e n))
             end
    end
  end.
Proof. destruct fuel; destruct r; reflexivity. Qed.

Lemma tdd_eval_denotes s env : tstore_wf s ->
  forall b r fuel, tref_below b r -> (b <= length s)%nat -> (b < fuel)%nat ->
  tdenotes s env r (tdd_eval s fuel env r).
Proof.
  intros Hwf. induction b as [|b IH]; intros r fuel Hb Hbl Hf; rewrite tdd_eval_unfold.
  - destruct r as [v|i]; [constructor|]. cbn in Hb. lia.
  - destruct r as [v|i]; [constructor|]. cbn in Hb.
    destruct fuel as [|f]; [lia|].
    destruct (nth_error s (N.to_nat i)) as [n|] eqn:En.
    + destruct (Hwf _ _ En) as (R1 & R2 & R3 & _).
      eapply TDNode; [exact En|]. apply IH; [|lia|lia].
      destruct (env (tn_level n)); cbn [tsel]; (eapply tref_below_mono; [|eassumption]; lia).
    + exfalso. apply nth_error_None in En. lia.
Qed.

(** every valid reference of a well-formed table has exactly one value, and it is what the
    executable evaluation computes with every sufficient fuel (in particular [tdd_eval_root]) *)
Theorem tref_denotes s env r : tstore_wf s -> tref_in s r ->
  exists v, tdenotes s env r v /\ (forall v', tdenotes s env r v' -> v' = v) /\
            (forall fuel, (length s < fuel)%nat -> tdd_eval s fuel env r = v) /\
            tdd_eval_root s env r = v.
Proof.
  intros Hwf Hin. exists (tdd_eval s (S (length s)) env r).
  assert (Hb : tref_below (length s) r) by (destruct r; cbn in *; auto).
  assert (D : tdenotes s env r (tdd_eval s (S (length s)) env r)) by (eapply tdd_eval_denotes; eauto).
  splits.
  - exact D.
  - intros v' H'. eapply tdenotes_det; eassumption.
  - intros fuel Hf. eapply tdenotes_det; [|exact D]. eapply tdd_eval_denotes; eauto.
Qed.

(** the reference returned by [reduce(..).then_insert(..)] denotes
    "case x_level of true -> t | unknown -> u | false -> e" *)
Theorem tdd_mk_node_denotes s level t u e s' r :
  tdd_mk_node s level t u e = (s', r) ->
  forall env v, tdenotes s' env r v <-> tdenotes s' env (tsel (env level) t u e) v.
Proof.
  intros H env v. unfold tdd_mk_node in H.
  destruct (tref_eqb t u && tref_eqb u e) eqn:E.
  - apply andb_true_iff in E. destruct E as [E1 E2]. apply tref_eqb_eq in E1, E2. subst u e.
    inversion H; subst. destruct (env level); reflexivity.
  - destruct (tdd_find_or_add_spec _ _ _ _ H) as (i & -> & Hnth & _). split.
    + intros D. inversion D; subst. assert (n = mkTN level t u e) by congruence. subst n. assumption.
    + intros D. eapply TDNode; [exact Hnth|exact D].
Qed.

(** extending the table does not change the meaning of the references it already had *)
Lemma tdenotes_ext s s' env r v : text s s' -> tdenotes s env r v -> tdenotes s' env r v.
Proof.
  intros [x ->]. induction 1 as [v|i n v Hn Hd IH]; [constructor|].
  eapply TDNode; [|exact IH]. rewrite nth_error_app1; [exact Hn|]. apply nth_error_Some. congruence.
Qed.

(** ** SAFETY OF ACCEPTANCE for the whole file: "never builds a wrong diagram" *)
Theorem tdd_import_whole_safe strict slm inp h st roots :
  tdd_import_whole strict slm inp = TOk (h, st, roots) ->
  header_wf h /\ h_ascii h = true /\ length slm = length (h_ids h) /\
  tstore_wf (ts_store st) /\ tlevels_in slm (ts_store st) /\
  Forall (tref_in (ts_store st)) (ts_nodes st) /\ length (ts_nodes st) = N.to_nat (h_nnodes h) /\
  Forall (tref_in (ts_store st)) roots /\ length roots = length (h_rootids h) /\
  forall r, In r roots -> forall env,
    exists v, tdenotes (ts_store st) env r v /\ (forall v', tdenotes (ts_store st) env r v' -> v' = v) /\
              tdd_eval_root (ts_store st) env r = v.
Proof.
  unfold tdd_import_whole. destruct (load_header inp) as [[h0 rest]|e] eqn:L; [|discriminate].
  destruct (Nat.eqb_spec (length slm) (length (h_ids h0))) as [Hlen|]; cbn [negb]; [|discriminate].
  destruct (h_ascii h0) eqn:Ha; cbn [negb]; [|discriminate].
  unfold tdd_import_body.
  destruct (tdd_import_file_safe strict (varinfo_none (h_varinfo h0)) slm (h_nnodes h0) (h_rootids h0) rest) as [_ Hs].
  destruct (tdd_import_file strict (varinfo_none (h_varinfo h0)) slm (h_nnodes h0) (h_rootids h0) rest)
    as [[st0 roots0]|]; [|discriminate].
  intros H; inversion H; subst. clear H.
  destruct (load_header_wf _ _ _ L) as [Hwf _].
  destruct (Hs _ _ eq_refl) as (W & Lv & Fn & Ln & Fr & Lr & _ & _).
  splits; try assumption.
  intros r Hr env. rewrite Forall_forall in Fr.
  destruct (tref_denotes (ts_store st) env r W (Fr _ Hr)) as (v & D & U & _ & E).
  exists v. splits; assumption.
Qed.
