(** * C18q proofs, part 9: the circuit of every accepted DIMACS file

    [parse_dimacs_topo]: for every accepted file (CNF or a SAT format, any options) gate [k] only
    refers to input variables below the number of variables and to gates with a SMALLER number,
    and the root is in range -- so the circuit is closed, topologically ordered and acyclic. *)
From Coq Require Import List NArith ZArith Bool Arith Lia Relations.
From OxiVerif Require Import IO.AigerParse IO.AigerLexProofs IO.AigerSecProofs IO.AigerTotalProofs
  IO.DimacsParse IO.DimacsProofs IO.TreeParse IO.TreeProofs IO.GateAcyclicProofs IO.PreambleProofs
  IO.DimacsSatParse IO.DimacsSatProofs.
Import ListNotations.
Open Scope N_scope.

(** a literal over [nv] inputs and the gates below [ng] *)
Definition lit_in (nv ng : N) (l : alit) : Prop :=
  match l with
  | ALConst _ => True
  | ALIn _ k => k < nv
  | ALGate _ g => g < ng
  | ALUndef _ => False
  end.

(** gate [k] reads inputs below [nv] and gates below [k] *)
Definition gates_topo (nv : N) (gs : list dgate) : Prop :=
  forall k x l, nth_error gs k = Some x -> In l (snd x) -> lit_in nv (N.of_nat k) l.

Lemma lit_in_mono nv a b l : lit_in nv a l -> a <= b -> lit_in nv b l.
Proof. destruct l; cbn; try tauto. lia. Qed.

Lemma lit_in_not nv ng l : lit_in nv ng l -> lit_in nv ng (alit_not l).
Proof. destruct l; cbn; tauto. Qed.

Lemma gates_topo_nil nv : gates_topo nv [].
Proof. intros k x l H. destruct k; discriminate. Qed.

Lemma gates_topo_snoc nv gs g : gates_topo nv gs -> Forall (lit_in nv (lenN gs)) (snd g) ->
  gates_topo nv (gs ++ [g]).
Proof.
  intros Ht Hg k x l Hk Hl. destruct (Nat.lt_ge_cases k (length gs)) as [Hlt|Hge].
  - rewrite nth_error_app1 in Hk by exact Hlt. eapply Ht; eassumption.
  - rewrite nth_error_app2 in Hk by exact Hge. destruct (k - length gs)%nat as [|j] eqn:E.
    + cbn in Hk. inversion Hk; subst x. rewrite Forall_forall in Hg. specialize (Hg l Hl).
      eapply lit_in_mono; [exact Hg|]. unfold lenN. lia.
    + destruct j; discriminate.
Qed.

Lemma gates_topo_topo_g nv gs : gates_topo nv gs -> topo_g gs.
Proof. intros H k x s h Hk Hl. specialize (H k x _ Hk Hl). cbn in H. lia. Qed.

(* ------------------------------------------------------------------ *)
(** ** SAT formats *)

Lemma sat_lex_var_range nv bs n r : sat_lex nv bs = LTok (SVarT n) r -> n <> 0 /\ n <= nv.
Proof.
  unfold sat_lex. destruct (multispace0 bs) as [|b m]; [discriminate|].
  pose proof (p_u64_len (b :: m)) as Hu.
  destruct (p_u64 (b :: m)) as [[v r']| |]; [| |destruct Hu].
  - destruct (N.eqb_spec v 0) as [|Hv0]; [discriminate|]. cbn [orb].
    destruct (N.ltb_spec nv v) as [|Hvle]; [discriminate|].
    intros E; inversion E; subst. split; assumption.
  - cbn [starts_with tl].
    destruct (b =? 40); [discriminate|]. destruct (b =? 41); [discriminate|]. destruct (b =? 45); [discriminate|].
    destruct (b =? 42); [discriminate|]. destruct (b =? 43); [discriminate|].
    destruct (strip_prefix [120; 111; 114] (b :: m)) as [r'|]; [destruct (word_end r'); discriminate|].
    destruct (b =? 61); discriminate.
Qed.

Lemma sat_combine_topo nv op ch gs l gs' : sat_combine op ch gs = (l, gs') ->
  gates_topo nv gs -> Forall (lit_in nv (lenN gs)) ch ->
  (exists ext, gs' = gs ++ ext) /\ gates_topo nv gs' /\ lit_in nv (lenN gs') l.
Proof.
  intros H Ht Hch. unfold sat_combine in H. destruct ch as [|c [|c2 ch']].
  - inversion H; subst. split; [exists []; rewrite app_nil_r; reflexivity|]. split; [exact Ht|exact I].
  - inversion H; subst. split; [exists []; rewrite app_nil_r; reflexivity|]. split; [exact Ht|].
    inversion Hch; assumption.
  - set (k := match op with OpAnd => DAnd | OpOr => DOr | _ => DXor end) in *.
    set (e := N.even (lenN (c :: c2 :: ch'))) in *. clearbody e.
    injection H as Hl Hgs. subst gs'. split; [eexists; reflexivity|]. split.
    + apply gates_topo_snoc; [exact Ht|exact Hch].
    + rewrite lenN_app. change (lit_in nv (lenN gs + 1) l).
      subst l. destruct op; cbn [lit_in]; try lia.
      destruct e; cbn [alit_not lit_in negb]; lia.
Qed.

Definition f_inv (nv : N) (gs : list dgate) (x : fres) : Prop :=
  match x with
  | FOk l gs' _ => (exists ext, gs' = gs ++ ext) /\ gates_topo nv gs' /\ lit_in nv (lenN gs') l
  | _ => True
  end.
Definition l_inv (nv : N) (gs : list dgate) (x : flres) : Prop :=
  match x with
  | LOk ch gs' _ => (exists ext, gs' = gs ++ ext) /\ gates_topo nv gs' /\ Forall (lit_in nv (lenN gs')) ch
  | _ => True
  end.

Lemma formula_topo ax ae nv : forall f,
  (forall gs bs, gates_topo nv gs -> f_inv nv gs (formula f ax ae nv gs bs)) /\
  (forall gs acc bs, gates_topo nv gs -> Forall (lit_in nv (lenN gs)) acc ->
                     l_inv nv gs (formula_loop f ax ae nv gs acc bs)).
Proof.
  induction f as [|f [IHf IHl]]; [split; intros; exact I|]. split.
  - intros gs bs Ht.
    assert (Hleaf : forall s n r, n <> 0 /\ n <= nv -> f_inv nv gs (FOk (ALIn s (n - 1)) gs r)).
    { intros s n r Hn. cbn. split; [exists []; rewrite app_nil_r; reflexivity|]. split; [exact Ht|]. lia. }
    apply formula_cases.
    + exact I.
    + intros n r El. apply Hleaf. exact (sat_lex_var_range _ _ _ _ El).
    + intros r _. exact I.
    + intros r n r' _ El2. apply Hleaf. exact (sat_lex_var_range _ _ _ _ El2).
    + intros neg r _. unfold f_paren. specialize (IHf gs r Ht). unfold f_inv in IHf.
      destruct (formula f ax ae nv gs r) as [l g r'|r'| |]; try exact I.
      destruct (expect_tok false nv r'); [|exact I].
      destruct IHf as (He & Ht' & Hl). cbn. split; [exact He|]. split; [exact Ht'|].
      destruct neg; [apply lit_in_not|]; exact Hl.
    + intros op r _. unfold f_nary. destruct (expect_tok true nv r) as [r'|]; [|exact I].
      specialize (IHl gs [] r' Ht (Forall_nil _)). unfold l_inv in IHl.
      destruct (formula_loop f ax ae nv gs [] r') as [ch g' r''| |]; try exact I.
      destruct IHl as ((ext & ->) & Ht' & Hch).
      destruct (sat_combine op ch (gs ++ ext)) as [l g''] eqn:Ec.
      destruct (sat_combine_topo nv _ _ _ _ _ Ec Ht' Hch) as ((ext2 & ->) & Ht2 & Hl).
      cbn. split; [exists (ext ++ ext2); rewrite app_assoc; reflexivity|]. split; assumption.
  - intros gs acc bs Ht Hacc. cbn [formula_loop].
    specialize (IHf gs bs Ht). unfold f_inv in IHf.
    destruct (formula f ax ae nv gs bs) as [l g r|r| |]; try exact I.
    + destruct IHf as ((ext & ->) & Ht' & Hl).
      assert (Hacc' : Forall (lit_in nv (lenN (gs ++ ext))) (l :: acc)).
      { constructor; [exact Hl|]. eapply Forall_impl; [|exact Hacc]. intros a Ha.
        eapply lit_in_mono; [exact Ha|]. rewrite lenN_app. lia. }
      specialize (IHl (gs ++ ext) (l :: acc) r Ht' Hacc'). unfold l_inv in *.
      destruct (formula_loop f ax ae nv (gs ++ ext) (l :: acc) r) as [ch g' r'| |]; try exact I.
      destruct IHl as ((ext2 & ->) & Ht2 & Hch). split; [exists (ext ++ ext2); rewrite app_assoc; reflexivity|].
      split; assumption.
    + cbn. split; [exists []; rewrite app_nil_r; reflexivity|]. split; [exact Ht|].
      apply Forall_rev. exact Hacc.
Qed.

(* ------------------------------------------------------------------ *)
(** ** CNF *)

Definition in_lit (nv : N) (l : alit) : Prop := match l with ALIn _ k => k < nv | _ => False end.

Lemma cnf_loop_lits nv : forall f done ck cur neg bs gates r,
  cnf_loop f nv done ck cur neg bs = POk (gates, r) ->
  Forall (fun g => Forall (in_lit nv) (snd g)) done -> Forall (in_lit nv) cur ->
  Forall (fun g => Forall (in_lit nv) (snd g)) gates.
Proof.
  induction f as [|f IH]; intros done ck cur neg bs gates r H Hd Hc; [discriminate|]. cbn [cnf_loop] in H.
  assert (Hfin : Forall (fun g : dgate => Forall (in_lit nv) (snd g)) ((ck, rev cur) :: done)).
  { constructor; [cbn [snd]; apply Forall_rev; exact Hc|exact Hd]. }
  destruct (lex bs) as [[[n| |] r0]|].
  - destruct (N.eqb_spec n 0).
    + eapply IH; [exact H|exact Hfin|constructor].
    + destruct (N.ltb_spec nv n); [discriminate|].
      eapply IH; [exact H|exact Hd|]. constructor; [cbn; lia|exact Hc].
  - destruct neg; [discriminate|]. eapply IH; eassumption.
  - destruct cur; [|discriminate]. eapply IH; eassumption.
  - injection H as Hg Hr. subst gates. apply Forall_app. split; [apply Forall_rev; exact Hd|].
    constructor; [cbn [snd]; apply Forall_rev; exact Hc|constructor].
Qed.

Lemma fix_count_sub gates nc gs : fix_count gates nc = Some gs -> incl gs gates.
Proof.
  unfold fix_count. destruct (lenN gates =? nc); [intros H; inversion H; subst; apply incl_refl|].
  destruct (lenN gates =? nc + 1); [|discriminate].
  destruct (rev gates) as [|[k [|? ?]] r] eqn:E; try discriminate. intros H; inversion H; subst.
  intros x Hx. apply in_rev. rewrite E. right. apply in_rev. exact Hx.
Qed.

(** [retain]: the gates kept are among the clause gates; the conjuncts are input literals or
    positive references to the kept gates, numbered from [g0] *)
Lemma retain_spec nv : forall gs g0 kept cj, retain gs g0 = Some (kept, cj) ->
  Forall (fun g => Forall (in_lit nv) (snd g)) gs ->
  Forall (fun g => Forall (in_lit nv) (snd g)) kept /\
  Forall (fun l => in_lit nv l \/ exists j, l = ALGate false j /\ g0 <= j < g0 + lenN kept) cj.
Proof.
  induction gs as [|[k ins] gs IH]; intros g0 kept cj H Hall; cbn [retain] in H.
  - inversion H; subst. split; constructor.
  - inversion Hall as [|? ? Hg Hgs]; subst. cbn [snd] in Hg.
    destruct ins as [|l [|l2 ins']]; [discriminate| |].
    + destruct (retain gs g0) as [[kept0 cj0]|] eqn:E; [|discriminate]. inversion H; subst.
      destruct (IH _ _ _ E Hgs) as [Hk Hc]. split; [exact Hk|]. constructor; [|exact Hc].
      left. inversion Hg; assumption.
    + destruct (retain gs (g0 + 1)) as [[kept0 cj0]|] eqn:E; [|discriminate]. inversion H; subst.
      destruct (IH _ _ _ E Hgs) as [Hk Hc]. split; [constructor; [exact Hg|exact Hk]|].
      constructor.
      * right. exists g0. split; [reflexivity|]. rewrite lenN_cons. lia.
      * eapply Forall_impl; [|exact Hc]. intros a [Ha|(j & -> & Hj)]; [left; exact Ha|right].
        exists j. split; [reflexivity|]. rewrite lenN_cons. lia.
Qed.

Lemma in_lit_lit_in nv ng l : in_lit nv l -> lit_in nv ng l.
Proof. destruct l; cbn; tauto. Qed.

Lemma input_gates_topo nv gs : Forall (fun g => Forall (in_lit nv) (snd g)) gs -> gates_topo nv gs.
Proof.
  intros H k x l Hk Hl. apply in_lit_lit_in. rewrite Forall_forall in H.
  specialize (H x (nth_error_In _ _ Hk)). rewrite Forall_forall in H. exact (H l Hl).
Qed.

(** [make_conj_tree] *)
Lemma conj_tree_topo nv cj : forall t gs l gs', conj_tree t cj gs = (l, gs') ->
  gates_topo nv gs -> Forall (lit_in nv (lenN gs)) cj ->
  (exists ext, gs' = gs ++ ext) /\ gates_topo nv gs' /\ lit_in nv (lenN gs') l.
Proof.
  induction t as [i|ch IH] using tree_ind2; intros gs l gs' H Ht Hcj.
  - cbn [conj_tree] in H. inversion H; subst. split; [exists []; rewrite app_nil_r; reflexivity|].
    split; [exact Ht|].
    destruct (Nat.lt_ge_cases (N.to_nat i) (length cj)) as [Hlt|Hge].
    + rewrite Forall_forall in Hcj. apply Hcj. apply nth_In. exact Hlt.
    + rewrite nth_overflow by exact Hge. exact I.
  - cbn [conj_tree] in H.
    set (go := fix go (l0 : list tree) (ls : list alit) (gs0 : list dgate) {struct l0} : list alit * list dgate :=
                 match l0 with
                 | [] => (ls, gs0)
                 | c :: r => let '(x, gs1) := conj_tree c cj gs0 in go r (ls ++ [x]) gs1
                 end) in *.
    assert (Hgo : forall ch0, Forall (fun t => forall gs l gs', conj_tree t cj gs = (l, gs') ->
                                   gates_topo nv gs -> Forall (lit_in nv (lenN gs)) cj ->
                                   (exists ext, gs' = gs ++ ext) /\ gates_topo nv gs' /\ lit_in nv (lenN gs') l) ch0 ->
              forall ls gs0 ls' gs1, go ch0 ls gs0 = (ls', gs1) ->
              gates_topo nv gs0 -> Forall (lit_in nv (lenN gs0)) cj -> Forall (lit_in nv (lenN gs0)) ls ->
              (exists ext, gs1 = gs0 ++ ext) /\ gates_topo nv gs1 /\ Forall (lit_in nv (lenN gs1)) ls').
    { induction ch0 as [|c ch0 IHc]; intros Hall ls gs0 ls' gs1 Hg Ht0 Hcj0 Hls.
      - cbn in Hg. inversion Hg; subst. split; [exists []; rewrite app_nil_r; reflexivity|]. split; assumption.
      - inversion Hall as [|? ? Hc Hrest]; subst. cbn [go] in Hg. fold go in Hg.
        destruct (conj_tree c cj gs0) as [x gsx] eqn:Ec.
        destruct (Hc _ _ _ Ec Ht0 Hcj0) as ((ext & ->) & Htx & Hx).
        assert (Hmono : forall L, Forall (lit_in nv (lenN gs0)) L -> Forall (lit_in nv (lenN (gs0 ++ ext))) L).
        { intros L HL. eapply Forall_impl; [|exact HL]. intros a Ha. eapply lit_in_mono; [exact Ha|].
          rewrite lenN_app. lia. }
        destruct (IHc Hrest _ _ _ _ Hg Htx (Hmono _ Hcj0)) as ((ext2 & ->) & Ht2 & Hl2).
        { apply Forall_app. split; [apply Hmono; exact Hls|constructor; [exact Hx|constructor]]. }
        split; [exists (ext ++ ext2); rewrite app_assoc; reflexivity|]. split; assumption. }
    destruct (go ch [] gs) as [lits gsl] eqn:Eg.
    destruct (Hgo ch IH [] gs lits gsl Eg Ht Hcj (Forall_nil _)) as ((ext & ->) & Htl & Hlits).
    inversion H; subst. split; [exists (ext ++ [(DAnd, lits)]); rewrite app_assoc; reflexivity|]. split.
    + apply gates_topo_snoc; [exact Htl|exact Hlits].
    + rewrite (lenN_app (gs ++ ext)). change (lit_in nv (lenN (gs ++ ext) + 1) (ALGate false (lenN (gs ++ ext)))).
      cbn [lit_in]. lia.
Qed.

(* ------------------------------------------------------------------ *)
(** ** The theorem *)

Theorem parse_dimacs_topo vo ct bs p : parse_dimacs vo ct bs = POk p ->
  gates_topo (vs_len (rp_vars p)) (rp_gates p) /\
  lit_in (vs_len (rp_vars p)) (lenN (rp_gates p)) (rp_root p) /\
  topo_g (rp_gates p) /\ acyclic_g (rp_gates p) = true /\
  forall g, ~ clos_trans nat (reads_g (rp_gates p)) g g.
Proof.
  intros H.
  assert (Hmain : gates_topo (vs_len (rp_vars p)) (rp_gates p) /\
                  lit_in (vs_len (rp_vars p)) (lenN (rp_gates p)) (rp_root p)).
  { unfold parse_dimacs in H.
    destruct (dimacs_preamble vo ct bs) as [[pre r]| |]; cbn [pbind] in H; try discriminate.
    destruct (pre_fmt pre).
    - unfold cnf_parse in H. set (nv := vs_len (pre_vars pre)) in *.
      destruct (cnf_loop (S (length r)) nv [] DOr [] false r) as [[gates r1]| |] eqn:El; cbn [pbind] in H; try discriminate.
      destruct (multispace0 r1); [|discriminate].
      pose proof (cnf_loop_lits nv _ _ _ _ _ _ _ _ El (Forall_nil _) (Forall_nil _)) as Hg.
      unfold cnf_finish in H. destruct (fix_count gates (pre_nclauses pre)) as [gs|] eqn:Ef; [|discriminate].
      assert (Hgs : Forall (fun g : dgate => Forall (in_lit nv) (snd g)) gs).
      { apply Forall_forall. intros x Hx. rewrite Forall_forall in Hg. apply Hg. eapply fix_count_sub; eassumption. }
      destruct gs as [|g0 gs']; [inversion H; subst; cbn; split; [apply gates_topo_nil|exact I]|].
      destruct (retain (g0 :: gs') 0) as [[kept cj]|] eqn:Er;
        [|inversion H; subst; cbn; split; [apply gates_topo_nil|exact I]].
      destruct (retain_spec nv _ _ _ _ Er Hgs) as [Hk Hc].
      assert (Hcj : Forall (lit_in nv (lenN kept)) cj).
      { eapply Forall_impl; [|exact Hc]. intros a [Ha|(j & -> & Hj)]; [apply in_lit_lit_in; exact Ha|cbn; lia]. }
      pose proof (input_gates_topo nv kept Hk) as Htk.
      destruct (pre_ctree pre) as [t|].
      + destruct (conj_tree t cj kept) as [root gs2] eqn:Ec. inversion H; subst. cbn [rp_vars rp_gates rp_root].
        destruct (conj_tree_topo nv cj t kept root gs2 Ec Htk Hcj) as (_ & Ht2 & Hr). split; assumption.
      + inversion H; subst. cbn [rp_vars rp_gates rp_root]. split.
        * apply gates_topo_snoc; [exact Htk|exact Hcj].
        * rewrite lenN_app. change (lit_in nv (lenN kept + 1) (ALGate false (lenN kept))). cbn [lit_in]. lia.
    - unfold sat_parse in H.
      pose proof (proj1 (formula_topo xor eq (vs_len (pre_vars pre)) (S (2 * length r))) [] r
                        (gates_topo_nil _)) as Hf. unfold f_inv in Hf.
      destruct (formula (S (2 * length r)) xor eq (vs_len (pre_vars pre)) [] r) as [l g r'|r'| |]; try discriminate.
      destruct (multispace0 r'); [|discriminate]. inversion H; subst. cbn [rp_vars rp_gates rp_root].
      destruct Hf as (_ & Ht & Hl). split; assumption. }
  destruct Hmain as [Ht Hr]. split; [exact Ht|]. split; [exact Hr|].
  pose proof (gates_topo_topo_g _ _ Ht) as Htg. split; [exact Htg|].
  split; [apply acyclic_g_topo; exact Htg|apply topo_g_no_cycle; exact Htg].
Qed.
