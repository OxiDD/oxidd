(** * C18p: the model of the DIMACS CNF reader is total *)
From Coq Require Import List NArith ZArith Bool Arith Lia.
From OxiVerif Require Import IO.AigerParse IO.AigerTotalProofs IO.DimacsParse.
Import ListNotations.
Open Scope N_scope.

Lemma multispace0_len : forall bs, (length (multispace0 bs) <= length bs)%nat.
Proof.
  induction bs as [|b r IH]; cbn; [lia|].
  destruct ((b =? 32) || (b =? 9) || (b =? 13) || (b =? 10)); cbn; lia.
Qed.

(** a token consumes at least one byte *)
Lemma lex_len bs t r : lex bs = Some (t, r) -> (length r < length bs)%nat.
Proof.
  unfold lex. pose proof (multispace0_len bs) as Hm.
  pose proof (p_u64_len (multispace0 bs)) as Hu. unfold strict in Hu.
  destruct (p_u64 (multispace0 bs)) as [[n r']| |].
  - intros H. inversion H; subst. lia.
  - destruct (multispace0 bs) as [|b r0]; [discriminate|]. cbn [length] in Hm.
    destruct (b =? 45); [intros H; inversion H; subst; lia|].
    destruct ((b =? 120) || (b =? 88)); [intros H; inversion H; subst; lia|discriminate].
  - contradiction.
Qed.

Lemma cnf_loop_nofuel nvars : forall f done ck cur neg bs, (length bs < f)%nat ->
  cnf_loop f nvars done ck cur neg bs <> PFuel.
Proof.
  induction f as [|f IH]; intros done ck cur neg bs Hf; [lia|]. cbn [cnf_loop].
  destruct (lex bs) as [[t r]|] eqn:E; [|discriminate].
  apply lex_len in E. destruct t as [n| |].
  - destruct (n =? 0); [apply IH; lia|]. destruct (nvars <? n); [discriminate|apply IH; lia].
  - destruct neg; [discriminate|apply IH; lia].
  - destruct cur; [apply IH; lia|discriminate].
Qed.

Lemma p_count_nofuel bs : p_count bs <> PFuel.
Proof. exact (weak_nofuel _ bs (strict_weak _ _ (p_usize_len bs))). Qed.

Lemma problem_line_nofuel bs : problem_line bs <> PFuel.
Proof.
  unfold problem_line. destruct bs as [|b r0]; [discriminate|]. destruct (b =? 112); [|discriminate].
  apply nofuel_bind; [apply (strict0_nofuel _ r0), space1_len|intros r1].
  destruct (p_fmt r1) as [[[|] r2]|]; try discriminate.
  apply nofuel_bind; [apply (strict0_nofuel _ r2), space1_len|intros r3].
  apply nofuel_bind; [apply p_count_nofuel|intros [nv r4]].
  apply nofuel_bind; [apply (strict0_nofuel _ r4), space1_len|intros r5].
  apply nofuel_bind; [apply p_count_nofuel|intros [nc r6]].
  apply nofuel_bind; [apply (strict0_nofuel _ (space0 r6)), line_ending_len|intros r7]. discriminate.
Qed.

(** the model of the CNF reader returns a problem, a diagnostic, or "SAT format"
    for every byte string *)
Theorem parse_cnf_total bs : parse_cnf bs <> DFuel.
Proof.
  unfold parse_cnf.
  pose proof (problem_line_nofuel (skip_comments false bs)) as H0.
  destruct (problem_line (skip_comments false bs)) as [[[nv nc|] r0]| |]; try discriminate; [|contradiction].
  pose proof (cnf_loop_nofuel nv (S (length r0)) [] DOr [] false r0 (Nat.lt_succ_diag_r _)) as H1.
  destruct (cnf_loop (S (length r0)) nv [] DOr [] false r0) as [[gates r1]| |]; try discriminate; [|contradiction].
  destruct (multispace0 r1); [|discriminate].
  destruct (fix_count gates nc) as [[|g gs]|]; try discriminate.
  destruct (retain (g :: gs) 0) as [[kept cj]|]; discriminate.
Qed.

(* ------------------------------------------------------------------ *)
(** ** Round trip: a printed CNF is read back as the problem [cnf::parse] builds *)

From OxiVerif Require Import IO.AigerLexProofs IO.AigerSecProofs.

Definition dlit_of (l : bool * N) : alit := ALIn (fst l) (snd l).
Definition gate_of (c : bool * list (bool * N)) : dgate :=
  (if fst c then DXor else DOr, map dlit_of (snd c)).

(** what [cnf::parse] makes of the clause gates *)
Definition result_of (nvars : N) (gs : list dgate) : dres :=
  match gs with
  | [] => DOk (mkDProblem nvars [] (ALConst true))
  | _ =>
    match retain gs 0 with
    | None => DOk (mkDProblem nvars [] (ALConst false))
    | Some (kept, cj) => DOk (mkDProblem nvars (kept ++ [(DAnd, cj)]) (ALGate false (lenN kept)))
    end
  end.

Definition cnf_ok (nvars : N) (clauses : list (bool * list (bool * N))) : Prop :=
  nvars <= max_capacity /\ lenN clauses <= max_capacity /\
  Forall (fun c => Forall (fun l : bool * N => snd l < nvars) (snd c)) clauses.

Lemma cnf_loop_mono nvars : forall f f' done ck cur neg bs,
  cnf_loop f nvars done ck cur neg bs <> PFuel -> (f <= f')%nat ->
  cnf_loop f' nvars done ck cur neg bs = cnf_loop f nvars done ck cur neg bs.
Proof.
  induction f as [|f IH]; intros f' done ck cur neg bs H Hle; [contradiction H; reflexivity|].
  destruct f' as [|f']; [lia|]. cbn [cnf_loop] in *.
  destruct (lex bs) as [[[n| |] r]|]; [| | |reflexivity].
  - destruct (n =? 0); [apply IH; [exact H|lia]|]. destruct (nvars <? n); [reflexivity|].
    apply IH; [exact H|lia].
  - destruct neg; [reflexivity|]. apply IH; [exact H|lia].
  - destruct cur; [|reflexivity]. apply IH; [exact H|lia].
Qed.

Lemma lex_sp X : lex (32 :: X) = lex X.
Proof. reflexivity. Qed.
Lemma lex_nl X : lex (10 :: X) = lex X.
Proof. reflexivity. Qed.

Lemma multispace0_dec n R : multispace0 (dec n ++ R) = dec n ++ R.
Proof.
  destruct (dec_head n) as (c & t & E & Hc). rewrite E. cbn [app multispace0].
  apply is_digit_range in Hc.
  destruct (N.eqb_spec c 32); [lia|]. destruct (N.eqb_spec c 9); [lia|].
  destruct (N.eqb_spec c 13); [lia|]. destruct (N.eqb_spec c 10); [lia|]. reflexivity.
Qed.

Lemma lex_int n R : n < two64 -> nodigit R -> lex (dec n ++ R) = Some (TInt n, R).
Proof.
  intros Hn HR. unfold lex. rewrite multispace0_dec, p_u64_dec by assumption. reflexivity.
Qed.

Lemma lex_neg R : lex (45 :: R) = Some (TNeg, R).
Proof. reflexivity. Qed.

Lemma lex_xor R : lex (120 :: R) = Some (TXor, R).
Proof. reflexivity. Qed.

(** the loop's result up to the white space left in front of the remaining input
    (the caller applies [multispace0] to it) *)
Definition fin (r : pres (list dgate * list N)) : pres (list dgate * list N) :=
  match r with POk (g, r1) => POk (g, multispace0 r1) | PErr => PErr | PFuel => PFuel end.

Lemma fin_mono nvars f f' done ck cur neg bs x :
  fin (cnf_loop f nvars done ck cur neg bs) = POk x -> (f <= f')%nat ->
  fin (cnf_loop f' nvars done ck cur neg bs) = POk x.
Proof.
  intros H Hle. rewrite (cnf_loop_mono nvars f f'); [exact H| |exact Hle].
  intros E. rewrite E in H. discriminate.
Qed.

Lemma loop_ws nvars w R : (w = 32 \/ w = 10) -> forall f done ck cur neg,
  fin (cnf_loop f nvars done ck cur neg (w :: R)) = fin (cnf_loop f nvars done ck cur neg R).
Proof.
  intros Hw f done ck cur neg. destruct f as [|f]; [reflexivity|]. cbn [cnf_loop].
  assert (E : lex (w :: R) = lex R) by (destruct Hw; subst; reflexivity). rewrite E.
  destruct (lex R) as [[[n| |] r]|]; try reflexivity.
  cbn [fin]. f_equal. f_equal. destruct Hw; subst; reflexivity.
Qed.

Section Roundtrip.
  Variable nvars : N.
  Hypothesis Hcap : nvars <= max_capacity.

  (** one literal: one or two tokens *)
  Lemma loop_lit l done ck cur R f x : snd l < nvars ->
    fin (cnf_loop f nvars done ck (dlit_of l :: cur) false R) = POk x ->
    fin (cnf_loop (2 + f) nvars done ck cur false (print_lit l ++ R)) = POk x.
  Proof.
    intros Hl H. destruct l as [s v]. cbn [snd fst] in *. unfold print_lit. cbn [fst snd].
    assert (Hv : v + 1 < two64) by (unfold max_capacity, two64 in *; lia).
    assert (Step : forall neg g, fin (cnf_loop g nvars done ck (ALIn neg v :: cur) false R) = POk x ->
                                 fin (cnf_loop (S g) nvars done ck cur neg (dec (v + 1) ++ sp ++ R)) = POk x).
    { intros neg g Hg. cbn [cnf_loop]. rewrite lex_int by (try assumption; reflexivity).
      destruct (N.eqb_spec (v + 1) 0); [lia|]. destruct (N.ltb_spec nvars (v + 1)); [lia|].
      replace (v + 1 - 1) with v by lia. cbn [app sp]. rewrite loop_ws by (left; reflexivity). exact Hg. }
    destruct s.
    - cbn [app plus]. cbn [cnf_loop]. rewrite lex_neg. rewrite <- app_assoc. apply Step. exact H.
    - cbn [app]. rewrite <- app_assoc. eapply fin_mono; [apply Step; exact H|lia].
  Qed.

  Lemma loop_lits : forall lits done ck cur R f x,
    Forall (fun l : bool * N => snd l < nvars) lits ->
    fin (cnf_loop f nvars done ck (rev (map dlit_of lits) ++ cur) false R) = POk x ->
    fin (cnf_loop (2 * length lits + f) nvars done ck cur false (flat_map print_lit lits ++ R)) = POk x.
  Proof.
    induction lits as [|l lits IH]; intros done ck cur R f x Hok H; [exact H|].
    inversion Hok; subst. cbn [flat_map length]. rewrite <- app_assoc.
    replace (2 * S (length lits) + f)%nat with (2 + (2 * length lits + f))%nat by lia.
    apply loop_lit; [assumption|]. apply IH; [assumption|].
    cbn [map rev] in H. rewrite <- app_assoc in H. exact H.
  Qed.

  (** one clause *)
  Lemma loop_clause c done R f x :
    Forall (fun l : bool * N => snd l < nvars) (snd c) ->
    fin (cnf_loop f nvars (gate_of c :: done) DOr [] false R) = POk x ->
    fin (cnf_loop (2 + 2 * length (snd c) + f) nvars done DOr [] false (print_clause c ++ R)) = POk x.
  Proof.
    intros Hok H. destruct c as [xor lits]. cbn [fst snd] in *. unfold print_clause. cbn [fst snd].
    assert (Zero : forall ck g, fin (cnf_loop g nvars ((ck, map dlit_of lits) :: done) DOr [] false R) = POk x ->
                   fin (cnf_loop (2 * length lits + S g) nvars done ck [] false
                                 (flat_map print_lit lits ++ [48; 10] ++ R)) = POk x).
    { intros ck g Hg. apply loop_lits; [assumption|]. rewrite app_nil_r.
      cbn [cnf_loop]. change ([48; 10] ++ R) with (dec 0 ++ 10 :: R).
      rewrite lex_int by reflexivity. change (0 =? 0) with true. cbn match.
      rewrite rev_involutive. rewrite loop_ws by (right; reflexivity). exact Hg. }
    destruct xor.
    - cbn [app]. replace (2 + 2 * length lits + f)%nat with (S (2 * length lits + S f)) by lia.
      cbn [cnf_loop]. rewrite lex_xor. rewrite <- app_assoc.
      rewrite loop_ws by (left; reflexivity). apply Zero. exact H.
    - cbn [app]. rewrite <- app_assoc. eapply fin_mono; [apply Zero; exact H|lia].
  Qed.

  Lemma loop_clauses : forall clauses done,
    Forall (fun c => Forall (fun l : bool * N => snd l < nvars) (snd c)) clauses ->
    exists f, fin (cnf_loop f nvars done DOr [] false (flat_map print_clause clauses))
              = POk (rev done ++ map gate_of clauses ++ [(DOr, [])], []).
  Proof.
    induction clauses as [|c clauses IH]; intros done Hok.
    - exists 1%nat. reflexivity.
    - inversion Hok; subst. destruct (IH (gate_of c :: done) H2) as [f Hf].
      exists (2 + 2 * length (snd c) + f)%nat. cbn [flat_map].
      apply loop_clause; [assumption|]. rewrite Hf. cbn [rev map]. rewrite <- app_assoc. reflexivity.
  Qed.
End Roundtrip.

Lemma space1_32 n X : space1 (32 :: dec n ++ X) = POk (dec n ++ X).
Proof. apply (space1_sp (dec n ++ X)). apply dec_nosp. Qed.

Lemma p_count_dec n R : n <= max_capacity -> nodigit R -> p_count (dec n ++ R) = POk (n, R).
Proof. exact (p_usize_dec n R). Qed.

Lemma problem_line_print nv nc R : nv <= max_capacity -> nc <= max_capacity ->
  problem_line ([112; 32; 99; 110; 102; 32] ++ dec nv ++ sp ++ dec nc ++ nl ++ R) = POk (PLCnf nv nc, R).
Proof.
  intros Hv Hc. cbn [app]. unfold problem_line. change (112 =? 112) with true. cbn match.
  change (space1 (32 :: 99 :: 110 :: 102 :: 32 :: dec nv ++ sp ++ dec nc ++ nl ++ R))
    with (POk (99 :: 110 :: 102 :: 32 :: dec nv ++ sp ++ dec nc ++ nl ++ R) : pres (list N)).
  cbn [pbind].
  change (p_fmt (99 :: 110 :: 102 :: 32 :: dec nv ++ sp ++ dec nc ++ nl ++ R))
    with (Some (true, 32 :: dec nv ++ sp ++ dec nc ++ nl ++ R)).
  cbn match.
  rewrite space1_32. cbn [pbind]. rewrite p_count_dec by (try reflexivity; assumption). cbn [pbind].
  rewrite space1_sp by apply dec_nosp. cbn [pbind].
  rewrite p_count_dec by (try reflexivity; assumption). reflexivity.
Qed.

Lemma fix_count_extra gs n : lenN gs = n -> fix_count (gs ++ [(DOr, [])]) n = Some gs.
Proof.
  intros <-. unfold fix_count, lenN. rewrite app_length. cbn [length].
  destruct (N.eqb_spec (N.of_nat (length gs + 1)) (N.of_nat (length gs))); [lia|].
  destruct (N.eqb_spec (N.of_nat (length gs + 1)) (N.of_nat (length gs) + 1)); [|lia].
  rewrite rev_app_distr. cbn [rev app]. rewrite rev_involutive. reflexivity.
Qed.

Lemma cnf_loop_print nvars clauses : nvars <= max_capacity ->
  Forall (fun c => Forall (fun l : bool * N => snd l < nvars) (snd c)) clauses ->
  exists r1, cnf_loop (S (length (flat_map print_clause clauses))) nvars [] DOr [] false (flat_map print_clause clauses)
             = POk (map gate_of clauses ++ [(DOr, [])], r1) /\ multispace0 r1 = [].
Proof.
  intros Hv Hok.
  destruct (loop_clauses nvars Hv clauses [] Hok) as [f Hf].
  set (bs := flat_map print_clause clauses) in *.
  pose proof (cnf_loop_nofuel nvars (S (length bs)) [] DOr [] false bs (Nat.lt_succ_diag_r _)) as Hnf.
  apply fin_mono with (f' := Nat.max f (S (length bs))) in Hf; [|lia].
  rewrite (cnf_loop_mono nvars (S (length bs))) in Hf by (exact Hnf || lia).
  destruct (cnf_loop (S (length bs)) nvars [] DOr [] false bs) as [[gates r1]| |]; try discriminate.
  cbn [fin] in Hf. injection Hf as Eg Er. exists r1. split; [rewrite Eg; reflexivity|exact Er].
Qed.

(** a printed CNF is read back as exactly the problem [cnf::parse] builds from
    its clauses (unit clauses become literals, an empty clause makes it false) *)
Theorem parse_print_cnf nvars clauses : cnf_ok nvars clauses ->
  parse_cnf (print_cnf nvars clauses) = result_of nvars (map gate_of clauses).
Proof.
  intros (Hv & Hc & Hok). unfold parse_cnf, print_cnf.
  change (skip_comments false ([112; 32; 99; 110; 102; 32] ++ ?x))
    with ([112; 32; 99; 110; 102; 32] ++ x).
  rewrite problem_line_print by assumption.
  destruct (cnf_loop_print nvars clauses Hv Hok) as (r1 & -> & ->).
  rewrite fix_count_extra by (apply lenN_map).
  unfold result_of. destruct (map gate_of clauses); reflexivity.
Qed.
