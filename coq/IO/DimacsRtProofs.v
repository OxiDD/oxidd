(** * C18q proofs, part 8: round trips of the complete DIMACS reader with a preamble

    - [dimacs_preamble_print]: variable-order lines, an optional clause-tree line and the problem
      line are read back as the preamble they were written from
    - [sat_roundtrip_vo]: SAT formats behind a variable-order preamble
    - [cnf_roundtrip_vo], [cnf_roundtrip_plain]: CNF with / without clause tree, with / without variable order: the
      result is the circuit [cnf::parse] builds, with [make_conj_tree] for the clause tree *)
From Coq Require Import List NArith ZArith Bool Arith Lia.
From OxiVerif Require Import IO.AigerParse IO.AigerLexProofs IO.AigerSecProofs IO.AigerTotalProofs
  IO.DimacsParse IO.DimacsProofs IO.TreeParse IO.TreeProofs IO.PreambleProofs IO.PreambleRtProofs
  IO.DimacsSatParse IO.DimacsSatProofs.
Import ListNotations.
Open Scope N_scope.

(* ------------------------------------------------------------------ *)
(** ** Preamble *)

(** what may stand in front of the problem line: a clause tree needs the option and the CNF format *)
Definition ctree_ok (ct : bool) (ctree : option tree) (fmt : dformat) (nc : N) : Prop :=
  match ctree with
  | None => True
  | Some t => ct = true /\ tree_top_ok_b false false t = true /\ is_cnf fmt = true /\
              list_maxN (flatten t) + 1 = nc
  end.

Lemma dimacs_preamble_print vo ct vars ctree pl rest fmt nc :
  vo || ct = true -> wf_vars_b vars = true -> ctree_ok ct ctree fmt nc ->
  starts_with 99 (pl ++ rest) = false ->
  dimacs_problem_line (pl ++ rest) = POk ((fmt, vs_len vars, nc), rest) ->
  dimacs_preamble vo ct (print_dimacs_vo vars ctree (pl ++ rest)) = POk (mkDPre fmt vars nc ctree, rest).
Proof.
  intros Hopt Hvars Hct Hp Hpl. unfold dimacs_preamble, print_dimacs_vo. rewrite Hopt.
  destruct (steps_print_vars (Some ct) vars (match ctree with Some t => print_ctree t | None => [] end ++ pl ++ rest) Hvars)
    as (st & Hsteps & Hb & Ha & Hvs & Hcn).
  destruct ctree as [t|].
  - destruct Hct as (-> & Htok & Hcnf & Hmax).
    assert (Hsteps2 : steps (Some true) ps_init (print_vars vars ++ print_ctree t ++ pl ++ rest)
                            (mkPS (ps_names st) (ps_order st) (ps_tree st) (Some (t, list_maxN (flatten t)))) (pl ++ rest)).
    { eapply steps_trans; [exact Hsteps|]. apply steps_one. apply pre_step_co; assumption. }
    rewrite (pre_loop_run _ _ _ _ _ Hsteps2) by (apply pre_step_break; exact Hp). cbn [pbind].
    unfold pre_before in *. cbn [ps_tree ps_names ps_order]. rewrite Hb. rewrite Hpl. cbn [pbind].
    unfold pre_after in *. cbn [ps_tree ps_names ps_order ps_ctree]. rewrite Ha.
    rewrite Hcnf. destruct (N.eqb_spec (list_maxN (flatten t) + 1) nc); [|contradiction]. cbn [andb].
    unfold varset_of in *. cbn [ps_tree ps_names ps_order ps_ctree option_map fst]. rewrite Hvs. reflexivity.
  - cbn [app] in *. rewrite (pre_loop_run _ _ _ _ _ Hsteps) by (apply pre_step_break; exact Hp). cbn [pbind].
    rewrite Hb, Hpl. cbn [pbind]. rewrite Ha, Hcn, Hvs. reflexivity.
Qed.

(* ------------------------------------------------------------------ *)
(** ** SAT formats behind a preamble *)

Lemma sat_parse_print vars ax ae f : vs_len vars <= max_capacity -> sform_ok_b ax ae (vs_len vars) f = true ->
  sat_parse vars ax ae (print_sform f ++ nl) = POk (sat_problem vars f).
Proof.
  intros Hv Hok. unfold sat_parse.
  pose proof (proj1 (formula_nofuel ax ae (vs_len vars) (S (2 * length (print_sform f ++ nl)))) []
                    (print_sform f ++ nl) ltac:(lia)) as Hnf.
  destruct (form_print ax ae (vs_len vars) Hv f Hok (S (2 * length (print_sform f ++ nl))) [] nl ltac:(reflexivity))
    as [E|E]; [congruence|].
  rewrite E. unfold sat_problem. destruct (build_sform f []) as [root gates]. reflexivity.
Qed.

Lemma wf_vars_cap vars : wf_vars_b vars = true -> vs_len vars <= max_capacity.
Proof. intros H. apply (wf_cap vars (wf_vars_facts vars H)). Qed.

Theorem sat_roundtrip_vo vo ct vars ax ae f :
  vo || ct = true -> wf_vars_b vars = true -> sform_ok_b ax (ax && ae) (vs_len vars) f = true ->
  parse_dimacs vo ct (print_dimacs_vo vars None (print_sat_body ax ae (vs_len vars) f))
  = POk (sat_problem vars f).
Proof.
  intros Hopt Hvars Hok. pose proof (wf_vars_cap vars Hvars) as Hcap.
  unfold parse_dimacs, print_sat_body.
  set (pl := [112; 32] ++ print_fmt (FSat ax ae) ++ sp ++ dec (vs_len vars) ++ nl).
  replace ([112; 32] ++ print_fmt (FSat ax ae) ++ sp ++ dec (vs_len vars) ++ nl ++ print_sform f ++ nl)
    with (pl ++ print_sform f ++ nl) by (unfold pl; rewrite <- !app_assoc; reflexivity).
  rewrite (dimacs_preamble_print vo ct vars None pl (print_sform f ++ nl) (FSat ax (ax && ae)) 0); try assumption.
  - cbn [pbind pre_fmt pre_vars]. apply sat_parse_print; assumption.
  - exact I.
  - reflexivity.
  - unfold pl. rewrite <- !app_assoc. apply sat_problem_line_print. exact Hcap.
Qed.

(* ------------------------------------------------------------------ *)
(** ** CNF *)

(** the problem [cnf::parse] builds from the clause gates: TRUE without clauses, FALSE with an
    empty clause, otherwise the conjunction of the clause literals -- one AND gate, or the gates
    of [make_conj_tree] along the clause tree *)
Definition cnf_result (vars : varset) (ctree : option tree) (gs : list dgate) : pres rproblem :=
  match gs with
  | [] => POk (mkRProblem vars [] (ALConst true))
  | _ =>
    match retain gs 0 with
    | None => POk (mkRProblem vars [] (ALConst false))
    | Some (kept, cj) =>
      match ctree with
      | Some t => let '(root, g) := conj_tree t cj kept in POk (mkRProblem vars g root)
      | None => POk (mkRProblem vars (kept ++ [(DAnd, cj)]) (ALGate false (lenN kept)))
      end
    end
  end.

Lemma cnf_parse_print pre clauses :
  vs_len (pre_vars pre) <= max_capacity -> pre_nclauses pre = lenN clauses ->
  Forall (fun c => Forall (fun l : bool * N => snd l < vs_len (pre_vars pre)) (snd c)) clauses ->
  cnf_parse pre (flat_map print_clause clauses) = cnf_result (pre_vars pre) (pre_ctree pre) (map gate_of clauses).
Proof.
  intros Hv Hn Hok. unfold cnf_parse.
  destruct (cnf_loop_print _ clauses Hv Hok) as (r1 & E & Er). rewrite E. cbn [pbind]. rewrite Er.
  unfold cnf_finish. rewrite Hn. rewrite fix_count_extra by apply lenN_map.
  unfold cnf_result. destruct (map gate_of clauses); reflexivity.
Qed.

Lemma cnf_problem_line_print nv nc R : nv <= max_capacity -> nc <= max_capacity ->
  dimacs_problem_line ([112; 32; 99; 110; 102; 32] ++ dec nv ++ sp ++ dec nc ++ nl ++ R) = POk ((FCnf, nv, nc), R).
Proof.
  intros Hv Hc. unfold dimacs_problem_line. cbn [app strip_prefix]. rewrite N.eqb_refl.
  change (space1 (32 :: 99 :: 110 :: 102 :: 32 :: ?x)) with (POk (99 :: 110 :: 102 :: 32 :: x) : pres (list N)).
  cbn [pbind].
  change (p_format (99 :: 110 :: 102 :: 32 :: ?x)) with (Some (FCnf, 32 :: x)).
  cbv beta iota. rewrite space1_32. cbn [pbind]. rewrite p_count_dec by (try reflexivity; assumption).
  cbn [pbind sp app]. rewrite space1_32. cbn [pbind].
  rewrite p_count_dec by (try reflexivity; assumption). reflexivity.
Qed.

Definition clauses_ok (nv : N) (clauses : list (bool * list (bool * N))) : Prop :=
  lenN clauses <= max_capacity /\
  Forall (fun c => Forall (fun l : bool * N => snd l < nv) (snd c)) clauses.

(** CNF behind a preamble (variable order and / or clause tree) *)
Theorem cnf_roundtrip_vo vo ct vars ctree clauses :
  vo || ct = true -> wf_vars_b vars = true -> clauses_ok (vs_len vars) clauses ->
  ctree_ok ct ctree FCnf (lenN clauses) ->
  parse_dimacs vo ct (print_dimacs_vo vars ctree (print_cnf (vs_len vars) clauses))
  = cnf_result vars ctree (map gate_of clauses).
Proof.
  intros Hopt Hvars [Hnc Hok] Hct. pose proof (wf_vars_cap vars Hvars) as Hcap.
  unfold parse_dimacs, print_cnf.
  set (pl := [112; 32; 99; 110; 102; 32] ++ dec (vs_len vars) ++ sp ++ dec (lenN clauses) ++ nl).
  replace ([112; 32; 99; 110; 102; 32] ++ dec (vs_len vars) ++ sp ++ dec (lenN clauses) ++ nl
           ++ flat_map print_clause clauses)
    with (pl ++ flat_map print_clause clauses) by (unfold pl; rewrite <- !app_assoc; reflexivity).
  rewrite (dimacs_preamble_print vo ct vars ctree pl (flat_map print_clause clauses) FCnf (lenN clauses)); try assumption.
  - cbn [pbind pre_fmt].
    apply (cnf_parse_print (mkDPre FCnf vars (lenN clauses) ctree) clauses); [exact Hcap|reflexivity|exact Hok].
  - reflexivity.
  - unfold pl. rewrite <- !app_assoc. apply cnf_problem_line_print; assumption.
Qed.

(** CNF without options (the same files as [C18_dimacs_cnf_roundtrip], through the complete model) *)
Theorem cnf_roundtrip_plain nv clauses : nv <= max_capacity -> clauses_ok nv clauses ->
  parse_dimacs false false (print_cnf nv clauses) = cnf_result (varset_new nv) None (map gate_of clauses).
Proof.
  intros Hv [Hnc Hok]. unfold parse_dimacs, dimacs_preamble, print_cnf. cbn [orb].
  change (skip_comments false ([112; 32; 99; 110; 102; 32] ++ ?x)) with ([112; 32; 99; 110; 102; 32] ++ x).
  rewrite cnf_problem_line_print by assumption. cbn [pbind pre_fmt].
  apply (cnf_parse_print (mkDPre FCnf (varset_new nv) (lenN clauses) None) clauses); [exact Hv|reflexivity|exact Hok].
Qed.

(** example: two variables with an order tree and a name, three clauses (one XOR clause, one
    unit clause) under a clause tree that uses clause 0 twice *)
Definition ex_vars : varset := mkVarSet 2 [1; 0] (Some (TInner [TLeaf 1; TLeaf 0])) [None; Some [98]].
Definition ex_clauses : list (bool * list (bool * N)) :=
  [(false, [(false, 0); (true, 1)]); (true, [(false, 0); (false, 1)]); (false, [(true, 0)])].
Definition ex_ctree : tree := TInner [TInner [TLeaf 0; TLeaf 2]; TLeaf 1; TLeaf 0].

Lemma ex_cnf_hyps :
  wf_vars_b ex_vars = true /\ clauses_ok 2 ex_clauses /\ ctree_ok true (Some ex_ctree) FCnf 3 /\
  parse_dimacs true true (print_dimacs_vo ex_vars (Some ex_ctree) (print_cnf 2 ex_clauses))
  = POk (mkRProblem ex_vars
           [(DOr, [ALIn false 0; ALIn true 1]); (DXor, [ALIn false 0; ALIn false 1]);
            (DAnd, [ALGate false 0; ALIn true 0]); (DAnd, [ALGate false 2; ALGate false 1; ALGate false 0])]
           (ALGate false 3)).
Proof.
  split; [vm_compute; reflexivity|]. split.
  - split; [vm_compute; discriminate|]. repeat constructor.
  - split; [repeat split; vm_compute; reflexivity|vm_compute; reflexivity].
Qed.

(* ------------------------------------------------------------------ *)
(** ** The variable set of every accepted DIMACS file *)

Lemma dimacs_preamble_varset vo ct bs pre r : dimacs_preamble vo ct bs = POk (pre, r) ->
  varset_valid (pre_vars pre) /\ varset_order_ok (pre_vars pre).
Proof.
  unfold dimacs_preamble. destruct (vo || ct).
  - destruct (pre_loop (S (length bs)) (Some ct) ps_init bs) as [[st r0]| |] eqn:El; cbn [pbind]; try discriminate.
    destruct (pre_before st) eqn:Eb; [|discriminate].
    destruct (dimacs_problem_line r0) as [[[[fmt nv] nc] r1]| |]; cbn [pbind]; try discriminate.
    destruct (pre_after st nv) eqn:Ea; [|discriminate].
    destruct (match ps_ctree st with Some (_, mc) => is_cnf fmt && (mc + 1 =? nc) | None => true end); [|discriminate].
    intros H; inversion H; subst. cbn [pre_vars]. eapply pre_loop_varset; eassumption.
  - destruct (dimacs_problem_line (skip_comments false bs)) as [[[[fmt nv] nc] r1]| |]; cbn [pbind]; try discriminate.
    intros H; inversion H; subst. cbn [pre_vars]. unfold varset_valid, varset_order_ok, varset_new.
    cbn [vs_order vs_tree vs_names vs_len]. repeat split; auto; try discriminate. unfold lenN. cbn [length]. lia.
Qed.

(** every accepted DIMACS file (any format, any options): the variable set satisfies
    [VarSet::check_valid], its order is empty or a permutation of the variables *)
Theorem parse_dimacs_varset vo ct bs p : parse_dimacs vo ct bs = POk p ->
  varset_valid (rp_vars p) /\ varset_order_ok (rp_vars p).
Proof.
  unfold parse_dimacs. destruct (dimacs_preamble vo ct bs) as [[pre r]| |] eqn:Ep; cbn [pbind]; try discriminate.
  apply dimacs_preamble_varset in Ep. intros H.
  assert (Hv : rp_vars p = pre_vars pre).
  { destruct (pre_fmt pre).
    - unfold cnf_parse in H.
      destruct (cnf_loop (S (length r)) (vs_len (pre_vars pre)) [] DOr [] false r) as [[gates r1]| |];
        cbn [pbind] in H; try discriminate.
      destruct (multispace0 r1); [|discriminate]. unfold cnf_finish in H.
      destruct (fix_count gates (pre_nclauses pre)) as [[|g gs]|]; try discriminate.
      + inversion H; reflexivity.
      + destruct (retain (g :: gs) 0) as [[kept cj]|]; [|inversion H; reflexivity].
        destruct (pre_ctree pre) as [t|]; [|inversion H; reflexivity].
        destruct (conj_tree t cj kept). inversion H; reflexivity.
    - unfold sat_parse in H.
      destruct (formula (S (2 * length r)) xor (eq) (vs_len (pre_vars pre)) [] r); try discriminate.
      destruct (multispace0 r0); [|discriminate]. inversion H; reflexivity. }
  rewrite Hv. exact Ep.
Qed.

(** example for the SAT round trips: all operators, an empty and a unary operator, [-( )], [( )] *)
Definition ex_sform : sform :=
  SOp OpEq [SOp OpXor [SLit false 0; SLit true 1]; SOp OpAnd [SLit false 1; SLit false 2; SOp OpOr []];
            SNot (SOp OpOr [SLit false 0; SLit false 2]); SPar (SOp OpAnd [SLit true 2])].

Lemma ex_sform_hyps :
  sform_ok_b true (andb true true) 3 ex_sform = true /\
  parse_dimacs false false (print_sat_body true true 3 ex_sform)
  = POk (mkRProblem (varset_new 3)
           [(DXor, [ALIn false 0; ALIn true 1]); (DAnd, [ALIn false 1; ALIn false 2; ALConst false]);
            (DOr, [ALIn false 0; ALIn false 2]);
            (DXor, [ALGate false 0; ALGate false 1; ALGate true 2; ALIn true 2])]
           (ALGate true 3)).
Proof. split; vm_compute; reflexivity. Qed.
