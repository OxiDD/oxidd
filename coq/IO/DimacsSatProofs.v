(** * C18q proofs, part 5: the complete DIMACS reader

    - [parse_dimacs_total]: a problem or a diagnostic for ALL byte strings and all options (CNF and
      the four SAT formats, with and without order / clause-tree preamble)
    - [sat_roundtrip]: a printed SAT formula is read back as exactly the circuit [sat::formula]
      builds for it *)
From Coq Require Import List NArith ZArith Bool Arith Lia.
From OxiVerif Require Import IO.AigerParse IO.AigerLexProofs IO.AigerSecProofs IO.AigerTotalProofs
  IO.DimacsParse IO.DimacsProofs IO.TreeParse IO.TreeProofs IO.PreambleProofs IO.DimacsSatParse.
Import ListNotations.
Open Scope N_scope.

(* ------------------------------------------------------------------ *)
(** ** Totality *)

Lemma p_count_len bs : strict (p_count bs) bs.
Proof. exact (p_usize_len bs). Qed.

Lemma dimacs_problem_line_nofuel bs : dimacs_problem_line bs <> PFuel.
Proof.
  unfold dimacs_problem_line. destruct (strip_prefix [112] bs) as [r0|]; [|discriminate].
  apply nofuel_bind; [apply (strict0_nofuel _ r0), space1_len|intros r1].
  destruct (p_format r1) as [[fmt r2]|]; [|discriminate].
  apply nofuel_bind; [apply (strict0_nofuel _ r2), space1_len|intros r3].
  apply nofuel_bind; [apply p_count_nofuel|intros [nv r4]].
  destruct fmt.
  - apply nofuel_bind; [apply (strict0_nofuel _ r4), space1_len|intros r5].
    apply nofuel_bind; [apply p_count_nofuel|intros [nc r6]].
    apply nofuel_bind; [apply (strict0_nofuel _ (space0 r6)), line_ending_len|intros r7]. discriminate.
  - apply nofuel_bind; [apply (strict0_nofuel _ (space0 r4)), line_ending_len|intros r7]. discriminate.
Qed.

Lemma dimacs_preamble_nofuel vo ct bs : dimacs_preamble vo ct bs <> PFuel.
Proof.
  unfold dimacs_preamble. destruct (vo || ct).
  - apply nofuel_bind; [apply pre_loop_nofuel, Nat.lt_succ_diag_r|intros [st r0]].
    destruct (pre_before st); [|discriminate].
    apply nofuel_bind; [apply dimacs_problem_line_nofuel|intros [[[fmt nv] nc] r1]].
    destruct (pre_after st nv); [|discriminate].
    destruct (match ps_ctree st with Some (_, mc) => is_cnf fmt && (mc + 1 =? nc) | None => true end); discriminate.
  - apply nofuel_bind; [apply dimacs_problem_line_nofuel|intros [[[fmt nv] nc] r1]]. discriminate.
Qed.

Lemma cnf_finish_nofuel vars nc ct gates : cnf_finish vars nc ct gates <> PFuel.
Proof.
  unfold cnf_finish. destruct (fix_count gates nc) as [[|g gs]|]; try discriminate.
  destruct (retain (g :: gs) 0) as [[kept cj]|]; [|discriminate].
  destruct ct as [t|]; [|discriminate]. destruct (conj_tree t cj kept). discriminate.
Qed.

Lemma cnf_parse_nofuel pre bs : cnf_parse pre bs <> PFuel.
Proof.
  unfold cnf_parse. apply nofuel_bind; [apply cnf_loop_nofuel, Nat.lt_succ_diag_r|intros [gates r1]].
  destruct (multispace0 r1); [apply cnf_finish_nofuel|discriminate].
Qed.

(** a token consumes at least one byte *)
Lemma sat_lex_len nv bs t r : sat_lex nv bs = LTok t r -> (length r < length bs)%nat.
Proof.
  unfold sat_lex. pose proof (multispace0_len bs) as Hm.
  destruct (multispace0 bs) as [|b m] eqn:E; [discriminate|].
  pose proof (p_u64_len (b :: m)) as Hu. unfold strict in Hu.
  destruct (p_u64 (b :: m)) as [[n r']| |].
  - destruct ((n =? 0) || (nv <? n)); [discriminate|]. intros H; inversion H; subst. lia.
  - cbn [starts_with tl].
    assert (Hm1 : forall t', LTok t' m = LTok t r -> (length r < length bs)%nat)
      by (intros t' H; inversion H; subst; cbn [length] in *; lia).
    destruct (b =? 40); [apply Hm1|]. destruct (b =? 41); [apply Hm1|]. destruct (b =? 45); [apply Hm1|].
    destruct (b =? 42); [apply Hm1|]. destruct (b =? 43); [apply Hm1|].
    destruct (strip_prefix [120; 111; 114] (b :: m)) as [r'|] eqn:Es.
    + apply strip_prefix_len in Es. cbn [length] in *.
      destruct (word_end r'); [|discriminate]. intros H; inversion H; subst. lia.
    + destruct (b =? 61); [apply Hm1|discriminate].
  - contradiction.
Qed.

Lemma expect_tok_len lp nv bs r : expect_tok lp nv bs = Some r -> (length r < length bs)%nat.
Proof.
  unfold expect_tok. destruct (sat_lex nv bs) as [t r'| |] eqn:E; try discriminate.
  apply sat_lex_len in E. destruct t; try discriminate; destruct lp; try discriminate;
    intros H; inversion H; subst; exact E.
Qed.

(** success consumes input; the fuel answer only when the fuel is [small] for the input *)
Definition ffuel (small : Prop) (x : fres) (bs : list N) : Prop :=
  match x with
  | FOk _ _ r => (length r < length bs)%nat
  | FRpar r => (length r < length bs)%nat
  | FErr => True
  | FFuel => small
  end.
Definition lfuel (small : Prop) (x : flres) (bs : list N) : Prop :=
  match x with
  | LOk _ _ r => (length r < length bs)%nat
  | LErr => True
  | LFuel => small
  end.

(** the two composite cases of [formula (S f)]: an operator applied to a parenthesised list, and a
    (possibly negated) formula in parentheses *)
Definition f_nary (f : nat) (ax ae : bool) (nv : N) (gates : list dgate) (op : sop) (r : list N) : fres :=
  match expect_tok true nv r with
  | None => FErr
  | Some r' =>
    match formula_loop f ax ae nv gates [] r' with
    | LOk children gates' r'' =>
      let '(l, gates'') := sat_combine op children gates' in FOk l gates'' r''
    | LErr => FErr
    | LFuel => FFuel
    end
  end.

Definition f_paren (f : nat) (ax ae : bool) (nv : N) (gates : list dgate) (neg : bool) (r : list N) : fres :=
  match formula f ax ae nv gates r with
  | FOk l g r' =>
    match expect_tok false nv r' with
    | Some r'' => FOk (if neg then alit_not l else l) g r''
    | None => FErr
    end
  | x => x
  end.

(** case analysis on the first token(s) of a formula, done once *)
Lemma formula_cases f ax ae nv gates bs (P : fres -> Prop) :
  P FErr ->
  (forall n r, sat_lex nv bs = LTok (SVarT n) r -> P (FOk (ALIn false (n - 1)) gates r)) ->
  (forall r, sat_lex nv bs = LTok SRpar r -> P (FRpar r)) ->
  (forall r n r', sat_lex nv bs = LTok SNegT r -> sat_lex nv r = LTok (SVarT n) r' ->
                  P (FOk (ALIn true (n - 1)) gates r')) ->
  (forall neg r, (length r < length bs)%nat -> P (f_paren f ax ae nv gates neg r)) ->
  (forall op r, (length r < length bs)%nat -> P (f_nary f ax ae nv gates op r)) ->
  P (formula (S f) ax ae nv gates bs).
Proof.
  intros Herr Hvar Hrpar Hnvar Hpar Hnary. cbn [formula].
  destruct (sat_lex nv bs) as [t r| |] eqn:El; try exact Herr. pose proof (sat_lex_len _ _ _ _ El) as Hr.
  destruct t.
  - apply (Hvar _ _ eq_refl).
  - apply (Hpar false r Hr).
  - apply (Hrpar _ eq_refl).
  - destruct (sat_lex nv r) as [t2 r2| |] eqn:El2; try exact Herr.
    pose proof (sat_lex_len _ _ _ _ El2) as Hr2.
    destruct t2; try exact Herr; [apply (Hnvar _ _ _ eq_refl El2)|apply (Hpar true r2); lia].
  - apply (Hnary OpAnd r Hr).
  - apply (Hnary OpOr r Hr).
  - destruct ax; [apply (Hnary OpXor r Hr)|exact Herr].
  - destruct ae; [apply (Hnary OpEq r Hr)|exact Herr].
Qed.

Lemma formula_fuel ax ae nv : forall f,
  (forall gates bs, ffuel (f < 2 * length bs + 1)%nat (formula f ax ae nv gates bs) bs) /\
  (forall gates acc bs, lfuel (f < 2 * length bs + 2)%nat (formula_loop f ax ae nv gates acc bs) bs).
Proof.
  induction f as [|f [IHf IHl]]; [split; intros; cbn; lia|]. split.
  - intros gates bs. apply formula_cases.
    + exact I.
    + intros n r El. exact (sat_lex_len _ _ _ _ El).
    + intros r El. exact (sat_lex_len _ _ _ _ El).
    + intros r n r' El El2. apply sat_lex_len in El, El2. cbn. lia.
    + intros neg r Hr. unfold f_paren. specialize (IHf gates r). unfold ffuel in IHf.
      destruct (formula f ax ae nv gates r) as [l g r'|r'| |]; cbn [ffuel]; [|lia|exact I|lia].
      destruct (expect_tok false nv r') as [r''|] eqn:Ee; [|exact I]. apply expect_tok_len in Ee. cbn. lia.
    + intros op r Hr. unfold f_nary. destruct (expect_tok true nv r) as [r'|] eqn:Ee; [|exact I].
      apply expect_tok_len in Ee. specialize (IHl gates [] r'). unfold lfuel in IHl.
      destruct (formula_loop f ax ae nv gates [] r') as [ch g' r''| |]; [|exact I|cbn; lia].
      destruct (sat_combine op ch g'). cbn. lia.
  - intros gates acc bs. cbn [formula_loop].
    pose proof (IHf gates bs) as H1. unfold ffuel in H1.
    destruct (formula f ax ae nv gates bs) as [l g r|r| |]; cbn [lfuel]; [|exact H1|exact I|lia].
    specialize (IHl g (l :: acc) r). unfold lfuel in *.
    destruct (formula_loop f ax ae nv g (l :: acc) r); [lia|exact I|lia].
Qed.

Lemma formula_nofuel ax ae nv : forall f,
  (forall gates bs, (2 * length bs + 1 <= f)%nat -> formula f ax ae nv gates bs <> FFuel) /\
  (forall gates acc bs, (2 * length bs + 2 <= f)%nat -> formula_loop f ax ae nv gates acc bs <> LFuel).
Proof.
  intros f. destruct (formula_fuel ax ae nv f) as [Hf Hl]. split.
  - intros gates bs Hb E. specialize (Hf gates bs). rewrite E in Hf. cbn in Hf. lia.
  - intros gates acc bs Hb E. specialize (Hl gates acc bs). rewrite E in Hl. cbn in Hl. lia.
Qed.

Lemma sat_parse_nofuel vars ax ae bs : sat_parse vars ax ae bs <> PFuel.
Proof.
  unfold sat_parse.
  pose proof (proj1 (formula_nofuel ax ae (vs_len vars) (S (2 * length bs))) [] bs ltac:(lia)) as H.
  destruct (formula (S (2 * length bs)) ax ae (vs_len vars) [] bs) as [l g r|r| |]; try discriminate;
    [|contradiction].
  destruct (multispace0 r); discriminate.
Qed.

(** the model of the DIMACS reader returns a problem or a diagnostic for every byte string *)
Theorem parse_dimacs_total vo ct bs : parse_dimacs vo ct bs <> PFuel.
Proof.
  unfold parse_dimacs. apply nofuel_bind; [apply dimacs_preamble_nofuel|intros [pre r]].
  destruct (pre_fmt pre); [apply cnf_parse_nofuel|apply sat_parse_nofuel].
Qed.

(* ------------------------------------------------------------------ *)
(** ** Round trip of the SAT formats *)

Section sform_ind2.
  Variable P : sform -> Prop.
  Hypothesis Hlit : forall neg v, P (SLit neg v).
  Hypothesis Hnot : forall f, P f -> P (SNot f).
  Hypothesis Hpar : forall f, P f -> P (SPar f).
  Hypothesis Hop : forall op l, Forall P l -> P (SOp op l).
  Fixpoint sform_ind2 (f : sform) : P f :=
    match f with
    | SLit neg v => Hlit neg v
    | SNot g => Hnot g (sform_ind2 g)
    | SPar g => Hpar g (sform_ind2 g)
    | SOp op l =>
      Hop op l ((fix go (l : list sform) : Forall P l :=
                   match l with
                   | [] => Forall_nil P
                   | x :: r => Forall_cons x (sform_ind2 x) (go r)
                   end) l)
    end.
End sform_ind2.

(** the inner loops of [print_sform] / [build_sform], named *)
Fixpoint print_sforms (l : list sform) : list N :=
  match l with
  | [] => []
  | x :: r => print_sform x ++ sp ++ print_sforms r
  end.

Fixpoint build_sforms (l : list sform) (acc : list alit) (gs : list dgate) : list alit * list dgate :=
  match l with
  | [] => (acc, gs)
  | x :: r => let '(c, gs') := build_sform x gs in build_sforms r (acc ++ [c]) gs'
  end.

Lemma print_sform_op op l : print_sform (SOp op l) = print_sop op ++ [40] ++ print_sforms l ++ [41].
Proof.
  cbn [print_sform].
  assert (H : forall l,
            (fix go (l : list sform) : list N :=
               match l with
               | [] => []
               | x :: r => print_sform x ++ sp ++ go r
               end) l = print_sforms l).
  { clear. induction l as [|x l IH]; [reflexivity|]. cbn [print_sforms]. rewrite <- IH. reflexivity. }
  rewrite H. reflexivity.
Qed.

Lemma build_sform_op op l gates :
  build_sform (SOp op l) gates = let '(ch, gs) := build_sforms l [] gates in sat_combine op ch gs.
Proof.
  cbn [build_sform].
  assert (H : forall l acc gs,
            (fix go (l : list sform) (acc : list alit) (gs : list dgate) {struct l} : list alit * list dgate :=
               match l with
               | [] => (acc, gs)
               | x :: r => let '(c, gs') := build_sform x gs in go r (acc ++ [c]) gs'
               end) l acc gs = build_sforms l acc gs).
  { clear. induction l as [|x l IH]; intros acc gs; [reflexivity|]. cbn [build_sforms].
    destruct (build_sform x gs) as [c gs']. apply IH. }
  rewrite H. reflexivity.
Qed.

Lemma multispace0_32 X : multispace0 (32 :: X) = multispace0 X.
Proof. reflexivity. Qed.

(** input that begins with a token character other than white space *)
Lemma sat_lex_sp nv X : sat_lex nv (32 :: X) = sat_lex nv X.
Proof. unfold sat_lex. rewrite multispace0_32. reflexivity. Qed.

Lemma sat_lex_var nv v R : v < nv -> nv <= max_capacity -> nodigit R ->
  sat_lex nv (dec (v + 1) ++ R) = LTok (SVarT (v + 1)) R.
Proof.
  intros Hv Hcap HR. unfold sat_lex. rewrite multispace0_dec.
  destruct (dec_head (v + 1)) as (c & t & E & Hc).
  assert (Ed : dec (v + 1) ++ R = c :: (t ++ R)) by (rewrite E; reflexivity).
  rewrite Ed. cbv beta iota. rewrite <- Ed.
  rewrite p_u64_dec by (try exact HR; unfold max_capacity, two64 in *; lia).
  destruct (N.eqb_spec (v + 1) 0); [lia|]. destruct (N.ltb_spec nv (v + 1)); [lia|]. reflexivity.
Qed.

Lemma sat_lex_char nv c R t :
  is_digit c = false -> multispace0 (c :: R) = c :: R ->
  (if c =? 40 then LTok SLpar R
   else if c =? 41 then LTok SRpar R
   else if c =? 45 then LTok SNegT R
   else if c =? 42 then LTok SAndT R
   else if c =? 43 then LTok SOrT R
   else match strip_prefix [120; 111; 114] (c :: R) with
        | Some r' => if word_end r' then LTok SXorT r' else LFail
        | None => if c =? 61 then LTok SEqT R else LFail
        end) = t ->
  sat_lex nv (c :: R) = t.
Proof.
  intros Hd Hm Ht. unfold sat_lex. rewrite Hm. rewrite p_u64_nodigit_head by exact Hd.
  cbn [starts_with tl]. exact Ht.
Qed.

Lemma sat_lex_lpar nv R : sat_lex nv (40 :: R) = LTok SLpar R.
Proof. apply sat_lex_char; reflexivity. Qed.
Lemma sat_lex_rpar nv R : sat_lex nv (41 :: R) = LTok SRpar R.
Proof. apply sat_lex_char; reflexivity. Qed.
Lemma sat_lex_neg nv R : sat_lex nv (45 :: R) = LTok SNegT R.
Proof. apply sat_lex_char; reflexivity. Qed.

Lemma sat_lex_op nv op R :
  sat_lex nv (print_sop op ++ 40 :: R)
  = LTok (match op with OpAnd => SAndT | OpOr => SOrT | OpXor => SXorT | OpEq => SEqT end) (40 :: R).
Proof. destruct op; cbn [print_sop app]; apply sat_lex_char; reflexivity. Qed.

Definition fokf (x : fres) (l : alit) (g : list dgate) (r : list N) : Prop := x = FFuel \/ x = FOk l g r.
Definition lokf (x : flres) (c : list alit) (g : list dgate) (r : list N) : Prop := x = LFuel \/ x = LOk c g r.

Lemma if_true_eq {A} (b : bool) (x y : A) : b = true -> (if b then x else y) = x.
Proof. intros ->. reflexivity. Qed.

Section SatPrint.
  Variables (ax ae : bool) (nv : N).
  Hypothesis Hcap : nv <= max_capacity.

  Definition form_ok (x : sform) : Prop :=
    forall f gates rest, nodigit rest ->
      fokf (formula f ax ae nv gates (print_sform x ++ rest))
           (fst (build_sform x gates)) (snd (build_sform x gates)) rest.

  Lemma loop_forms : forall l, Forall form_ok l ->
    forall f gates acc rest,
      lokf (formula_loop f ax ae nv gates acc (print_sforms l ++ 41 :: rest))
           (fst (build_sforms l (rev acc) gates)) (snd (build_sforms l (rev acc) gates)) rest.
  Proof.
    induction l as [|x l IH]; intros Hall f gates acc rest.
    - destruct f as [|f]; [left; reflexivity|]. cbn [formula_loop print_sforms app build_sforms fst snd].
      destruct f as [|f]; [left; reflexivity|]. right. cbn [formula]. rewrite sat_lex_rpar. reflexivity.
    - inversion Hall as [|? ? Hx Hl]; subst.
      destruct f as [|f]; [left; reflexivity|]. cbn [formula_loop print_sforms build_sforms].
      rewrite <- !app_assoc.
      destruct (Hx f gates (sp ++ print_sforms l ++ 41 :: rest) ltac:(reflexivity)) as [E|E].
      + left. rewrite E. reflexivity.
      + rewrite E. destruct (build_sform x gates) as [c gs'] eqn:Eb. cbn [fst snd].
        specialize (IH Hl f gs' (c :: acc) rest). cbn [rev] in IH.
        (* one blank in front of the next operand *)
        assert (Esp : forall g a, formula_loop f ax ae nv g a (sp ++ print_sforms l ++ 41 :: rest)
                              = formula_loop f ax ae nv g a (print_sforms l ++ 41 :: rest)).
        { intros g a. destruct f as [|f']; [reflexivity|]. cbn [formula_loop sp app].
          destruct f' as [|f'']; [reflexivity|]. cbn [formula]. rewrite sat_lex_sp. reflexivity. }
        rewrite Esp. exact IH.
  Qed.

  Lemma form_print : forall x, sform_ok_b ax ae nv x = true -> form_ok x.
  Proof.
    induction x as [neg v|g IH|g IH|op l IH] using sform_ind2; intros Hok; unfold form_ok;
      intros f gates rest Hrest; cbn [sform_ok_b] in Hok.
    - apply N.ltb_lt in Hok. destruct f as [|f]; [left; reflexivity|]. right.
      cbn [formula print_sform build_sform fst snd]. destruct neg; cbn [app].
      + rewrite sat_lex_neg. rewrite sat_lex_var by assumption.
        replace (v + 1 - 1) with v by lia. reflexivity.
      + rewrite sat_lex_var by assumption. replace (v + 1 - 1) with v by lia. reflexivity.
    - destruct f as [|f]; [left; reflexivity|]. cbn [formula print_sform app]. rewrite sat_lex_neg, sat_lex_lpar.
      rewrite <- app_assoc. cbn [app].
      destruct (IH Hok f gates (41 :: rest) ltac:(reflexivity)) as [E|E]; rewrite E; [left; reflexivity|].
      right. unfold expect_tok. rewrite sat_lex_rpar. cbn [build_sform].
      destruct (build_sform g gates). reflexivity.
    - destruct f as [|f]; [left; reflexivity|]. cbn [formula print_sform app]. rewrite sat_lex_lpar.
      rewrite <- app_assoc. cbn [app].
      destruct (IH Hok f gates (41 :: rest) ltac:(reflexivity)) as [E|E]; rewrite E; [left; reflexivity|].
      right. unfold expect_tok. rewrite sat_lex_rpar. reflexivity.
    - apply andb_true_iff in Hok. destruct Hok as [Hop Hl].
      assert (Hall : Forall form_ok l).
      { rewrite forallb_forall in Hl. rewrite Forall_forall in *. intros y Hy. apply IH; auto. }
      destruct f as [|f]; [left; reflexivity|]. rewrite print_sform_op, build_sform_op.
      rewrite <- !app_assoc. cbn [formula]. cbn [app]. rewrite sat_lex_op.
      assert (Hnary : forall op0, op0 = op ->
                fokf (f_nary f ax ae nv gates op0 (40 :: print_sforms l ++ [41] ++ rest))
                     (fst (let '(ch, gs) := build_sforms l [] gates in sat_combine op ch gs))
                     (snd (let '(ch, gs) := build_sforms l [] gates in sat_combine op ch gs)) rest).
      { intros op0 ->. unfold f_nary, expect_tok. rewrite sat_lex_lpar.
        destruct (loop_forms l Hall f gates [] rest) as [E|E]; cbn [app]; rewrite E; [left; reflexivity|].
        right. cbn [rev]. destruct (build_sforms l [] gates) as [ch gs]. cbn [fst snd].
        destruct (sat_combine op ch gs). reflexivity. }
      destruct op; cbn [print_sop app] in *.
      + apply Hnary. reflexivity.
      + apply Hnary. reflexivity.
      + rewrite (if_true_eq _ _ _ Hop). apply Hnary. reflexivity.
      + rewrite (if_true_eq _ _ _ Hop). apply Hnary. reflexivity.
  Qed.
End SatPrint.

(** the format a printed problem line is read as: [sate] gives [eq = false] (const SATE of dimacs.rs) *)
Lemma p_format_print ax ae R :
  p_format (print_fmt (FSat ax ae) ++ 32 :: R) = Some (FSat ax (ax && ae), 32 :: R).
Proof. destruct ax, ae; reflexivity. Qed.

Lemma space1_fmt f R : space1 (32 :: print_fmt f ++ R) = POk (print_fmt f ++ R).
Proof. destruct f as [|[|] [|]]; reflexivity. Qed.

Lemma sat_problem_line_print ax ae nv R : nv <= max_capacity ->
  dimacs_problem_line ([112; 32] ++ print_fmt (FSat ax ae) ++ sp ++ dec nv ++ nl ++ R)
  = POk ((FSat ax (ax && ae), nv, 0), R).
Proof.
  intros Hv. unfold dimacs_problem_line. cbn [app strip_prefix]. rewrite N.eqb_refl.
  rewrite space1_fmt. cbn [pbind]. cbn [sp app]. rewrite p_format_print.
  rewrite space1_32. cbn [pbind]. rewrite p_count_dec by (try reflexivity; assumption). reflexivity.
Qed.

(** round trip of the SAT formats: the file [p <fmt> <nv>\n<formula>\n] is read back as exactly the
    circuit [sat::formula] builds for the formula.  The operators the FILE'S format allows are the
    ones the code allows for it: 'xor' for satx / satex, '=' for satex only ([sate] files are read
    with [eq = false], see the note on [const SATE]). *)
Theorem sat_roundtrip ax ae nv f : nv <= max_capacity -> sform_ok_b ax (ax && ae) nv f = true ->
  parse_dimacs false false (print_sat_body ax ae nv f) = POk (sat_problem (varset_new nv) f).
Proof.
  intros Hv Hok. unfold parse_dimacs, dimacs_preamble, print_sat_body. cbn [orb].
  change (skip_comments false ([112; 32] ++ ?x)) with ([112; 32] ++ x).
  rewrite sat_problem_line_print by exact Hv. cbn [pbind pre_fmt pre_vars].
  unfold sat_parse. cbn [vs_len varset_new].
  pose proof (proj1 (formula_nofuel ax (ax && ae) nv (S (2 * length (print_sform f ++ nl)))) []
                    (print_sform f ++ nl) ltac:(lia)) as Hnf.
  destruct (form_print ax (ax && ae) nv Hv f Hok (S (2 * length (print_sform f ++ nl))) [] nl ltac:(reflexivity))
    as [E|E]; [congruence|].
  rewrite E. unfold sat_problem. destruct (build_sform f []) as [root gates]. reflexivity.
Qed.

(** the [const SATE] quirk: a [p sate] file that uses '=' is rejected (with a diagnostic) *)
Lemma sate_rejects_eq :
  parse_dimacs false false (print_sat_body false true 1 (SOp OpEq [SLit false 0; SLit false 0])) = PErr.
Proof. vm_compute. reflexivity. Qed.

(** ... although the same formula is accepted in a [p satex] file *)
Lemma satex_accepts_eq :
  parse_dimacs false false (print_sat_body true true 1 (SOp OpEq [SLit false 0; SLit false 0]))
  = POk (mkRProblem (varset_new 1) [(DXor, [ALIn false 0; ALIn false 0])] (ALGate true 0)).
Proof. vm_compute. reflexivity. Qed.
