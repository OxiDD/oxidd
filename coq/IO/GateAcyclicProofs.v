(** * C18q proofs, part 2: [acyclic_g] (the model's counterpart of [Circuit::find_cycle] for gates
      of any arity) is sound -- a gate list that passes has no gate depending on itself -- and
      accepts every topologically ordered list *)
From Coq Require Import List NArith ZArith Bool Arith Lia Relations.
From OxiVerif Require Import IO.AigerParse IO.DimacsParse IO.TreeParse IO.MarkingProofs.
Import ListNotations.
Open Scope N_scope.

Arguments N.of_nat : simpl never.
Arguments N.to_nat : simpl never.

(** gate [g] reads the output of gate [g'] *)
Definition reads_g (gates : list dgate) (g g' : nat) : Prop :=
  exists x s, nth_error gates g = Some x /\ In (ALGate s (N.of_nat g')) (snd x).

(** gate [k] only refers to gates with a smaller number *)
Definition topo_g (gates : list dgate) : Prop :=
  forall k x s h, nth_error gates k = Some x -> In (ALGate s h) (snd x) -> (N.to_nat h < k)%nat.

Lemma mark_round_g_length gates marks : length (mark_round_g gates marks) = length gates.
Proof. unfold mark_round_g. apply map_length. Qed.

Lemma mark_rounds_g_length : forall r gates marks, length marks = length gates ->
  length (mark_rounds_g r gates marks) = length gates.
Proof.
  induction r; intros gates marks H; cbn; [exact H|]. apply IHr. apply mark_round_g_length.
Qed.

Lemma nth_mark_round_g gates m g x : nth_error gates g = Some x ->
  nth g (mark_round_g gates m) false = forallb (lit_marked m) (snd x).
Proof. apply (nth_map_error (fun g : dgate => forallb (lit_marked m) (snd g))). Qed.

(** a gate marked after a round: all gates it reads were marked before the round *)
Lemma mark_round_g_reads gates m g : nth g (mark_round_g gates m) false = true ->
  forall g', reads_g gates g g' -> nth g' m false = true.
Proof.
  intros H g' (x & s & Hx & Hr). rewrite (nth_mark_round_g _ _ _ _ Hx) in H.
  rewrite forallb_forall in H. specialize (H _ Hr). cbn in H. rewrite Nat2N.id in H. exact H.
Qed.

(** soundness of the acyclicity test *)
Theorem acyclic_g_sound gates : acyclic_g gates = true -> forall g, ~ clos_trans nat (reads_g gates) g g.
Proof.
  apply (all_marked_sound (length gates) (reads_g gates) (mark_round_g gates)
                          (fun k => mark_rounds_g k gates)).
  - reflexivity.
  - reflexivity.
  - apply mark_rounds_g_length, map_length.
  - intros g g' (x & s & Hx & _). apply nth_error_Some. congruence.
  - intros m g g' H Hr. exact (mark_round_g_reads gates m g H g' Hr).
  - apply nth_map_false.
Qed.

(** completeness on topologically ordered lists *)
Lemma acyclic_g_topo gates : topo_g gates -> acyclic_g gates = true.
Proof.
  intros Ht.
  apply (topo_all_marked (length gates) (mark_round_g gates) (fun k => mark_rounds_g k gates));
    [reflexivity|reflexivity|apply mark_rounds_g_length, map_length|].
  intros m k Hk Hm. destruct (nth_error gates k) as [g|] eqn:Eg; [|apply nth_error_None in Eg; lia].
  rewrite (nth_mark_round_g _ _ _ _ Eg). apply forallb_forall. intros [| |s j|] Hl; try reflexivity.
  apply Hm. exact (Ht k g s j Eg Hl).
Qed.

Lemma topo_g_no_cycle gates : topo_g gates -> forall g, ~ clos_trans nat (reads_g gates) g g.
Proof.
  intros Ht. apply descending_no_cycle. intros g g' (x & s & Hx & Hr).
  specialize (Ht g x s _ Hx Hr). lia.
Qed.
