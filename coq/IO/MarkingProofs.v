(** * Iterated marking: the argument shared by the acyclicity tests [acyclic_b] (AIGER AND
      gates) and [acyclic_g] (gates of any arity).  A round marks the gates all of whose
      inputs are marked already; [rounds k m] is [k] rounds from the marks [m]. *)
From Coq Require Import List Bool Arith Lia Relations.
Import ListNotations.

Lemma nth_map_false {A} : forall (l : list A) g, nth g (map (fun _ => false) l) false = false.
Proof. induction l; destruct g; cbn; auto. Qed.

Lemma nth_map_error {A B} (f : A -> B) l g x d : nth_error l g = Some x -> nth g (map f l) d = f x.
Proof.
  intros Hx. rewrite (nth_indep _ d (f x)) by (rewrite map_length; apply nth_error_Some; congruence).
  rewrite map_nth. f_equal. apply nth_error_nth. exact Hx.
Qed.

Lemma descending_no_cycle (R : nat -> nat -> Prop) :
  (forall g g', R g g' -> (g' < g)%nat) -> forall g, ~ clos_trans nat R g g.
Proof.
  intros HR. assert (H : forall g g', clos_trans nat R g g' -> (g' < g)%nat).
  { induction 1 as [g g' Hr|g m g' _ IH1 _ IH2]; [apply HR; exact Hr|lia]. }
  intros g Hc. apply H in Hc. lia.
Qed.

Section Marking.
  (** [n] gates, [R g g']: gate [g] reads the output of gate [g'] *)
  Variables (n : nat) (R : nat -> nat -> Prop).
  Variables (round : list bool -> list bool) (rounds : nat -> list bool -> list bool) (m0 : list bool).
  Hypothesis rounds_0 : forall m, rounds O m = m.
  Hypothesis rounds_S : forall k m, rounds (S k) m = rounds k (round m).
  Hypothesis rounds_len : length (rounds n m0) = n.

  Lemma rounds_last k : forall m, rounds (S k) m = round (rounds k m).
  Proof.
    induction k as [|k IH]; intros m; [rewrite rounds_S, !rounds_0; reflexivity|].
    rewrite rounds_S, IH, <- rounds_S. reflexivity.
  Qed.

  (** *** Soundness: starting from no marks, a marked gate lies on no cycle *)
  Hypothesis R_dom : forall g g', R g g' -> (g < n)%nat.
  Hypothesis round_R : forall m g g', nth g (round m) false = true -> R g g' -> nth g' m false = true.
  Hypothesis m0_false : forall g, nth g m0 false = false.

  (** along a dependency path the round in which a gate is marked strictly decreases *)
  Lemma marked_path g g' : clos_trans nat R g g' ->
    forall k, nth g (rounds k m0) false = true ->
    exists k', (k' < k)%nat /\ nth g' (rounds k' m0) false = true.
  Proof.
    induction 1 as [g g' Hr|g mid g' _ IH1 _ IH2]; intros k Hk.
    - destruct k as [|k]; [rewrite rounds_0, m0_false in Hk; discriminate|].
      rewrite rounds_last in Hk. exists k. split; [lia|]. eapply round_R; eassumption.
    - destruct (IH1 k Hk) as (k1 & Hlt1 & Hk1). destruct (IH2 k1 Hk1) as (k2 & Hlt2 & Hk2).
      exists k2. split; [lia|assumption].
  Qed.

  Lemma marked_no_cycle : forall k g, nth g (rounds k m0) false = true -> ~ clos_trans nat R g g.
  Proof.
    induction k as [k IH] using lt_wf_ind. intros g Hk Hc.
    destruct (marked_path g g Hc k Hk) as (k' & Hlt & Hk'). exact (IH k' Hlt g Hk' Hc).
  Qed.

  Theorem all_marked_sound :
    forallb (fun b => b) (rounds n m0) = true -> forall g, ~ clos_trans nat R g g.
  Proof.
    intros H g Hc. refine (marked_no_cycle n g _ Hc).
    rewrite forallb_forall in H. apply H, nth_In. rewrite rounds_len.
    assert (Hd : forall a b, clos_trans nat R a b -> (a < n)%nat) by (induction 1; eauto).
    exact (Hd g g Hc).
  Qed.

  (** *** Completeness: in topological order, round [k] marks gate [k] at the latest *)
  Hypothesis round_topo : forall m k, (k < n)%nat ->
    (forall j, (j < k)%nat -> nth j m false = true) -> nth k (round m) false = true.

  Lemma rounds_topo : forall r c m,
    (forall k, (k < c)%nat -> (k < n)%nat -> nth k m false = true) ->
    forall k, (k < c + r)%nat -> (k < n)%nat -> nth k (rounds r m) false = true.
  Proof.
    induction r as [|r IH]; intros c m Hm k Hk Hn.
    - rewrite rounds_0. apply Hm; [lia|assumption].
    - rewrite rounds_S. apply (IH (S c)); [|lia|assumption].
      intros k' Hk' Hn'. apply round_topo; [assumption|]. intros j Hj. apply Hm; lia.
  Qed.

  Theorem topo_all_marked : forallb (fun b => b) (rounds n m0) = true.
  Proof.
    apply forallb_forall. intros b Hb. apply In_nth with (d := false) in Hb.
    destruct Hb as (k & Hk & <-). rewrite rounds_len in Hk.
    apply (rounds_topo n O); [intros; lia|lia|assumption].
  Qed.
End Marking.
