(** * C18q proofs, part 4: the NNF reader

    - [parse_nnf_total]: a problem or a diagnostic for ALL byte strings and all options
    - [parse_nnf_accept]: every accepted file yields a variable set satisfying
      [VarSet::check_valid], a linear order that is empty or a permutation of the variables, gates
      with at least one input whose literals are in range (inputs below the number of variables,
      positive references to existing gates), a root in range, and -- with [check_acyclic] -- no
      gate that depends on itself.  (The code does NOT require references to point backwards:
      [forward_ref_accepted] shows a file with a forward reference that is accepted.) *)
From Coq Require Import List NArith ZArith Bool Arith Lia Permutation Relations.
From OxiVerif Require Import IO.AigerParse IO.AigerLexProofs IO.AigerSecProofs IO.AigerTotalProofs
  IO.DimacsParse IO.DimacsProofs IO.TreeParse IO.TreeProofs IO.GateAcyclicProofs IO.PreambleProofs IO.NnfParse.
Import ListNotations.
Open Scope N_scope.

(* ------------------------------------------------------------------ *)
(** ** Totality *)

Lemma nnf_problem_line_len bs : strict (nnf_problem_line bs) bs.
Proof.
  unfold nnf_problem_line. destruct (strip_prefix [110; 110; 102] bs) as [r0|] eqn:E; [|exact I].
  apply strip_prefix_len in E. apply (strict_shorter _ r0); [lia|].
  apply strict0_bind; [apply space1_len|intros r1].
  apply weak_bind; [apply strict_weak, p_usize_len|intros n1 r2].
  apply weak0_bind; [apply strict0_weak0, space1_len|intros r3].
  apply weak_bind; [apply strict_weak, p_usize_len|intros n2 r4].
  apply weak0_bind; [apply strict0_weak0, space1_len|intros r5].
  apply weak_bind; [apply strict_weak, p_usize_len|intros n3 r6].
  apply weak0_bind; [apply strict0_weak0, line_ending_len|intros r7]. cbn. lia.
Qed.

Lemma skip_comments_len : forall bs c, (length (skip_comments c bs) <= length bs)%nat.
Proof.
  induction bs as [|b r IH]; intros c; cbn [skip_comments]; [lia|].
  destruct c.
  - destruct (b =? 10); pose proof (IH false); pose proof (IH true); cbn [length]; lia.
  - destruct (b =? 99); [pose proof (IH true); cbn [length]; lia|lia].
Qed.

Lemma digits_val_lt b r acc : is_digit b = true ->
  (length (snd (digits_val (b :: r) acc)) < length (b :: r))%nat.
Proof.
  intros Hb. cbn [digits_val]. rewrite Hb. pose proof (digits_val_len r (acc * 10 + (b - 48))).
  cbn [length]. lia.
Qed.

Lemma p_i64_len bs : strict (p_i64 bs) bs.
Proof.
  unfold p_i64, strict.
  set (x := if starts_with 45 bs then (true, tl bs) else if starts_with 43 bs then (false, tl bs) else (false, bs)).
  assert (Hx : (length (snd x) <= length bs)%nat).
  { unfold x. destruct bs as [|b r]; [cbn; lia|]. cbn [starts_with tl].
    destruct (b =? 45); [cbn; lia|]. destruct (b =? 43); cbn; lia. }
  destruct x as [neg r]. cbn [snd] in Hx.
  destruct r as [|b r']; [exact I|]. destruct (is_digit b) eqn:Eb; [|exact I].
  pose proof (digits_val_lt b r' 0 Eb) as Hd.
  destruct (digits_val (b :: r') 0) as [v r2]. cbn [snd] in *.
  destruct (if neg then v <=? two63 else v <? two63); [lia|exact I].
Qed.

Lemma nnf_child_len nn bs : strict (nnf_child nn bs) bs.
Proof.
  unfold nnf_child. apply strict0_bind; [apply space1_len|intros r].
  apply weak_bind; [apply strict_weak, p_u64_len|intros c r'].
  destruct (nn <=? c); cbn; lia.
Qed.

Lemma nnf_line_len nn ni bs : strict (nnf_line nn ni bs) bs.
Proof.
  unfold nnf_line. apply strict_bind.
  - destruct bs as [|b inp]; [exact I|]. apply (strict_shorter _ inp); [cbn [length]; lia|].
    destruct ((b =? 65) || (b =? 97) || (b =? 66) || (b =? 98) || (b =? 88) || (b =? 120)).
    { apply strict0_bind; [apply space1_len|intros r0].
      apply weak_bind; [apply strict_weak, p_u64_len|intros ch r1].
      destruct (ch =? 0); [cbn; lia|].
      apply weak_bind; [apply collect_len, nnf_child_len|intros cs r2]. cbn. lia. }
    destruct ((b =? 79) || (b =? 111)).
    { apply strict0_bind; [apply space1_len|intros r0].
      apply weak_bind; [apply strict_weak, p_u64_len|intros cf r1].
      destruct (ni <? cf); [exact I|].
      apply weak0_bind; [apply strict0_weak0, space1_len|intros r2].
      apply weak_bind; [apply strict_weak, p_u64_len|intros ch r3].
      destruct (negb (cf =? 0) && negb (ch =? 2)); [exact I|].
      destruct (ch =? 0); [cbn; lia|].
      apply weak_bind; [apply collect_len, nnf_child_len|intros cs r4]. cbn. lia. }
    destruct ((b =? 76) || (b =? 108)); [|exact I].
    apply strict0_bind; [apply space1_len|intros r0].
    apply weak_bind; [apply strict_weak, p_i64_len|intros [neg var] r1].
    destruct ((var =? 0) || (ni <? var)); [exact I|]. cbn. lia.
  - intros x r. pose proof (space0_len r) as Hs.
    pose proof (line_ending_len (space0 r)) as Hl. unfold strict0 in Hl.
    destruct (line_ending (space0 r)) as [r'| |]; cbn [pbind weak]; try exact I; [|contradiction]. lia.
Qed.

Lemma nnf_preamble_nofuel vo bs : nnf_preamble vo bs <> PFuel.
Proof.
  unfold nnf_preamble. destruct vo.
  - apply nofuel_bind; [apply pre_loop_nofuel, Nat.lt_succ_diag_r|intros [st r0]].
    destruct (pre_before st); [|discriminate].
    apply nofuel_bind; [apply (weak_nofuel _ r0), strict_weak, nnf_problem_line_len|intros [[[a b] c] r1]].
    destruct (pre_after st c); discriminate.
  - apply nofuel_bind; [|intros [[[a b] c] r1]; discriminate].
    apply (weak_nofuel _ (skip_comments false bs)), strict_weak, nnf_problem_line_len.
Qed.

(** the model of the NNF reader returns a problem or a diagnostic for every byte string *)
Theorem parse_nnf_total vo ca bs : parse_nnf vo ca bs <> PFuel.
Proof.
  unfold parse_nnf. apply nofuel_bind; [apply nnf_preamble_nofuel|intros [[vars [[nn ne] ni]] r0]].
  destruct (nn =? 0); [discriminate|].
  apply nofuel_bind; [apply (weak_nofuel _ r0), collect_len, nnf_line_len|intros [ls r1]].
  destruct (multispace0 r1); [|discriminate].
  destruct (ca && negb (acyclic_g (gates_of ls (node_lits ls 0)))); discriminate.
Qed.

(* ------------------------------------------------------------------ *)
(** ** What an accepted file satisfies *)

Definition line_ok (nn ni : N) (x : nline) : Prop :=
  match x with
  | NLit (ALConst _) => True
  | NLit (ALIn _ k) => k < ni
  | NLit _ => False
  | NGate _ ch => ch <> [] /\ Forall (fun c => c < nn) ch
  end.

Lemma nnf_child_ok nn bs c r : nnf_child nn bs = POk (c, r) -> c < nn.
Proof.
  unfold nnf_child. destruct (space1 bs) as [a| |]; cbn [pbind]; try discriminate.
  destruct (p_u64 a) as [[c0 r0]| |]; cbn [pbind]; try discriminate.
  destruct (N.leb_spec nn c0) as [|Hlt]; [discriminate|]. intros E; inversion E; subst. assumption.
Qed.

Lemma children_ok nn ch bs cs r : ch <> 0 -> collect ch (nnf_child nn) bs = POk (cs, r) ->
  cs <> [] /\ Forall (fun c => c < nn) cs.
Proof.
  intros Hch H. destruct (collect_inv (nnf_child nn) (fun c => c < nn) _ _ _ _ (nnf_child_ok nn) H) as [Hl Hf].
  split; [|exact Hf]. intros E. subst cs. unfold lenN in Hl. cbn [length] in Hl. lia.
Qed.

Lemma nnf_line_ok nn ni bs x r : nnf_line nn ni bs = POk (x, r) -> line_ok nn ni x.
Proof.
  unfold nnf_line. intros H.
  destruct bs as [|b inp]; [discriminate|].
  destruct ((b =? 65) || (b =? 97) || (b =? 66) || (b =? 98) || (b =? 88) || (b =? 120)).
  { destruct (space1 inp) as [r0| |]; cbn [pbind] in H; try discriminate.
    destruct (p_u64 r0) as [[ch r1]| |]; cbn [pbind] in H; try discriminate.
    destruct (N.eqb_spec ch 0).
    - cbn [pbind] in H. destruct (line_ending (space0 r1)); cbn [pbind] in H; try discriminate.
      inversion H; subst. exact I.
    - destruct (collect ch (nnf_child nn) r1) as [[cs r2]| |] eqn:Ec; cbn [pbind] in H; try discriminate.
      destruct (line_ending (space0 r2)); cbn [pbind] in H; try discriminate.
      inversion H; subst. eapply children_ok; eassumption. }
  destruct ((b =? 79) || (b =? 111)).
  { destruct (space1 inp) as [r0| |]; cbn [pbind] in H; try discriminate.
    destruct (p_u64 r0) as [[cf r1]| |]; cbn [pbind] in H; try discriminate.
    destruct (ni <? cf); [discriminate|].
    destruct (space1 r1) as [r2| |]; cbn [pbind] in H; try discriminate.
    destruct (p_u64 r2) as [[ch r3]| |]; cbn [pbind] in H; try discriminate.
    destruct (negb (cf =? 0) && negb (ch =? 2)); [discriminate|].
    destruct (N.eqb_spec ch 0).
    - cbn [pbind] in H. destruct (line_ending (space0 r3)); cbn [pbind] in H; try discriminate.
      inversion H; subst. exact I.
    - destruct (collect ch (nnf_child nn) r3) as [[cs r4]| |] eqn:Ec; cbn [pbind] in H; try discriminate.
      destruct (line_ending (space0 r4)); cbn [pbind] in H; try discriminate.
      inversion H; subst. eapply children_ok; eassumption. }
  destruct ((b =? 76) || (b =? 108)); [|discriminate].
  destruct (space1 inp) as [r0| |]; cbn [pbind] in H; try discriminate.
  destruct (p_i64 r0) as [[[neg var] r1]| |]; cbn [pbind] in H; try discriminate.
  destruct (N.eqb_spec var 0); [discriminate|]. cbn [orb] in H.
  destruct (N.ltb_spec ni var); [discriminate|]. cbn [pbind] in H.
  destruct (line_ending (space0 r1)); cbn [pbind] in H; try discriminate.
  inversion H; subst. cbn. lia.
Qed.

(** number of gate lines *)
Fixpoint cnt_gates (ls : list nline) : N :=
  match ls with
  | [] => 0
  | NLit _ :: r => cnt_gates r
  | NGate _ _ :: r => cnt_gates r + 1
  end.

Definition nlit_ok (ni lo hi : N) (l : alit) : Prop :=
  match l with
  | ALConst _ => True
  | ALIn _ k => k < ni
  | ALGate s j => s = false /\ lo <= j < hi
  | ALUndef _ => False
  end.

Lemma nlit_ok_weaken ni lo hi lo' hi' l : nlit_ok ni lo hi l -> lo' <= lo -> hi <= hi' -> nlit_ok ni lo' hi' l.
Proof. destruct l; cbn; try tauto. intros [? ?] ? ?. split; [assumption|lia]. Qed.

Lemma node_lits_length : forall ls g, length (node_lits ls g) = length ls.
Proof. induction ls as [|[l|k ch] ls IH]; intros g; cbn; [reflexivity| |]; rewrite IH; reflexivity. Qed.

Lemma node_lits_ok nn ni : forall ls g, Forall (line_ok nn ni) ls ->
  Forall (nlit_ok ni g (g + cnt_gates ls)) (node_lits ls g).
Proof.
  induction ls as [|x ls IH]; intros g H; [constructor|]. inversion H as [|? ? Hx Hl]; subst.
  destruct x as [l|k ch]; cbn [node_lits cnt_gates].
  - constructor; [|apply IH; exact Hl]. destruct l; cbn in *; try tauto.
  - constructor; [cbn; split; [reflexivity|lia]|].
    specialize (IH (g + 1) Hl). eapply Forall_impl; [|exact IH].
    intros l Hl0. eapply nlit_ok_weaken; [exact Hl0|lia|lia].
Qed.

Lemma gates_of_length ls nodes : lenN (gates_of ls nodes) = cnt_gates ls.
Proof.
  unfold gates_of. induction ls as [|[l|k ch] ls IH]; cbn [flat_map cnt_gates app]; [reflexivity|exact IH|].
  rewrite lenN_cons, IH. reflexivity.
Qed.

Lemma gates_of_ok nn ni ls nodes (Q : alit -> Prop) :
  Forall (line_ok nn ni) ls -> lenN nodes = nn -> Forall Q nodes ->
  forall g, In g (gates_of ls nodes) -> snd g <> [] /\ Forall Q (snd g).
Proof.
  intros Hl Hn Hq g Hg. unfold gates_of in Hg. apply in_flat_map in Hg. destruct Hg as (x & Hx & Hg).
  rewrite Forall_forall in Hl. specialize (Hl x Hx).
  destruct x as [l|k ch]; [destruct Hg|]. destruct Hg as [<-|[]]. cbn [snd]. destruct Hl as [Hne Hc].
  split; [destruct ch; [congruence|discriminate]|].
  apply Forall_forall. intros l Hl. apply in_map_iff in Hl. destruct Hl as (c & <- & Hc0).
  rewrite Forall_forall in Hc, Hq. apply Hq. apply nth_In. specialize (Hc c Hc0). unfold lenN in Hn. lia.
Qed.

Lemma last_cons_ne {A} (x : A) l d : l <> [] -> last (x :: l) d = last l d.
Proof. destruct l; [congruence|reflexivity]. Qed.

Lemma node_lits_last : forall ls g, ls <> [] ->
  last (node_lits ls g) (ALConst false) =
  match last ls (NLit (ALConst false)) with
  | NLit l => l
  | NGate _ _ => ALGate false (g + cnt_gates ls - 1)
  end.
Proof.
  induction ls as [|x ls IH]; intros g Hne; [congruence|].
  destruct ls as [|y ls'].
  - destruct x; cbn; [reflexivity|]. f_equal. lia.
  - rewrite (last_cons_ne x (y :: ls')) by discriminate.
    assert (Hnl : forall g', node_lits (y :: ls') g' <> []).
    { intros g' E. apply (f_equal (@length alit)) in E. rewrite node_lits_length in E. discriminate. }
    destruct x as [l|k ch].
    + change (node_lits (NLit l :: y :: ls') g) with (l :: node_lits (y :: ls') g).
      rewrite last_cons_ne by apply Hnl. rewrite IH by discriminate. reflexivity.
    + change (node_lits (NGate k ch :: y :: ls') g) with (ALGate false g :: node_lits (y :: ls') (g + 1)).
      rewrite last_cons_ne by apply Hnl. rewrite IH by discriminate.
      change (cnt_gates (NGate k ch :: y :: ls')) with (cnt_gates (y :: ls') + 1).
      destruct (last (y :: ls') (NLit (ALConst false))); [reflexivity|]. f_equal. lia.
Qed.

Lemma varset_new_valid n : varset_valid (varset_new n) /\ varset_order_ok (varset_new n).
Proof.
  unfold varset_valid, varset_order_ok, varset_new. cbn [vs_order vs_tree vs_names vs_len].
  repeat split; auto; try discriminate. unfold lenN. cbn [length]. lia.
Qed.

Lemma nnf_preamble_inv vo bs vars nn ne ni r0 : nnf_preamble vo bs = POk ((vars, (nn, ne, ni)), r0) ->
  vs_len vars = ni /\ varset_valid vars /\ varset_order_ok vars.
Proof.
  unfold nnf_preamble. destruct vo.
  - destruct (pre_loop (S (length bs)) None ps_init bs) as [[st r]| |] eqn:El; cbn [pbind]; try discriminate.
    destruct (pre_before st) eqn:Eb; [|discriminate].
    destruct (nnf_problem_line r) as [[[[a b] c] r1]| |]; cbn [pbind]; try discriminate.
    destruct (pre_after st c) eqn:Ea; [|discriminate]. intros H; inversion H; subst.
    split; [reflexivity|]. eapply pre_loop_varset; eassumption.
  - destruct (nnf_problem_line (skip_comments false bs)) as [[[[a b] c] r1]| |]; cbn [pbind]; try discriminate.
    intros H; inversion H; subst. split; [reflexivity|apply varset_new_valid].
Qed.

Lemma nlit_ok_b ni ng l : nlit_ok ni 0 ng l -> nnf_lit_ok_b ni ng l = true.
Proof.
  destruct l as [| s k | s g |]; cbn; try tauto.
  - intros H. apply N.ltb_lt. exact H.
  - intros [-> [_ H]]. cbn. apply N.ltb_lt. exact H.
Qed.

(** every accepted NNF file: valid variable set, gates with at least one input, all literals
    in range (gate references positive and to existing gates), the root is the last node (a
    constant, an input literal, or the last gate); with [check_acyclic] no gate depends on itself *)
Theorem parse_nnf_accept vo ca bs p : parse_nnf vo ca bs = POk p ->
  let nv := vs_len (rp_vars p) in
  let ng := lenN (rp_gates p) in
  varset_valid (rp_vars p) /\ varset_order_ok (rp_vars p) /\
  (forall g, In g (rp_gates p) -> snd g <> [] /\ forallb (nnf_lit_ok_b nv ng) (snd g) = true) /\
  nnf_root_ok_b nv ng (rp_root p) = true /\
  (ca = true -> acyclic_g (rp_gates p) = true /\ forall g, ~ clos_trans nat (reads_g (rp_gates p)) g g).
Proof.
  unfold parse_nnf. intros H.
  destruct (nnf_preamble vo bs) as [[[vars [[nn ne] ni]] r0]| |] eqn:Ep; cbn [pbind] in H; try discriminate.
  destruct (nnf_preamble_inv _ _ _ _ _ _ _ Ep) as (Hlen & Hval & Hord).
  destruct (N.eqb_spec nn 0) as [|Hnn]; [discriminate|].
  destruct (collect nn (nnf_line nn ni) r0) as [[ls r1]| |] eqn:Ec; cbn [pbind] in H; try discriminate.
  destruct (multispace0 r1); [|discriminate].
  destruct (collect_inv _ (line_ok nn ni) _ _ _ _ (nnf_line_ok nn ni) Ec) as [Hcount Hls].
  set (nodes := node_lits ls 0) in *. set (gates := gates_of ls nodes) in *.
  destruct (ca && negb (acyclic_g gates)) eqn:Eca; [discriminate|].
  inversion H; subst p. clear H. cbn [rp_vars rp_gates rp_root]. rewrite Hlen.
  assert (Hng : lenN gates = cnt_gates ls) by apply gates_of_length.
  pose proof (node_lits_ok nn ni ls 0 Hls) as Hnodes. fold nodes in Hnodes. rewrite N.add_0_l in Hnodes.
  assert (Hnlen : lenN nodes = nn).
  { unfold nodes, lenN. rewrite node_lits_length. exact Hcount. }
  split; [exact Hval|]. split; [exact Hord|]. split; [|split].
  - intros g Hg. destruct (gates_of_ok nn ni ls nodes _ Hls Hnlen Hnodes g Hg) as [Hne Hall].
    split; [exact Hne|]. apply forallb_forall. rewrite Forall_forall in Hall. intros l Hl.
    rewrite Hng. apply nlit_ok_b. apply Hall. exact Hl.
  - assert (Hne : ls <> []).
    { intros E. subst ls. unfold lenN in Hcount. cbn [length] in Hcount. lia. }
    unfold nodes. rewrite node_lits_last by exact Hne. rewrite Hng.
    pose proof (proj1 (Forall_forall _ _) Hls (last ls (NLit (ALConst false)))) as Hlast.
    specialize (Hlast ltac:(destruct ls; [congruence|]; apply (@exists_last _ (n :: ls)) in Hne;
                            destruct Hne as (l' & a & E); rewrite E, last_last; apply in_or_app; right; left; reflexivity)).
    destruct (last ls (NLit (ALConst false))) as [l|k ch] eqn:El.
    + destruct l; cbn in *; try tauto. apply N.ltb_lt. exact Hlast.
    + cbn. apply N.eqb_eq.
      assert (cnt_gates ls <> 0).
      { clear -El Hne. revert El. induction ls as [|x ls IH]; [congruence|]. destruct ls as [|y ls'].
        - cbn. intros ->. cbn. lia.
        - rewrite last_cons_ne by discriminate. intros E. specialize (IH ltac:(discriminate) E).
          destruct x as [l0|k0 ch0].
          + change (cnt_gates (NLit l0 :: y :: ls')) with (cnt_gates (y :: ls')). exact IH.
          + change (cnt_gates (NGate k0 ch0 :: y :: ls')) with (cnt_gates (y :: ls') + 1). lia. }
      lia.
  - intros ->. cbn [andb] in Eca. apply negb_false_iff in Eca. split; [exact Eca|].
    apply acyclic_g_sound. exact Eca.
Qed.

(** the code accepts forward references: node 0 is a gate over node 1 *)
Example forward_ref_file : list N :=
  [110;110;102;32;50;32;49;32;49;10; 65;32;49;32;49;10; 76;32;49;10].   (* "nnf 2 1 1\nA 1 1\nL 1\n" *)

Lemma forward_ref_accepted :
  parse_nnf false true forward_ref_file
  = POk (mkRProblem (varset_new 1) [(DAnd, [ALIn false 0])] (ALIn false 0)).
Proof. vm_compute. reflexivity. Qed.
