(** * C18q proofs, part 7: round trip of the NNF reader

    [parse_print_nnf] / [parse_print_nnf_vo]: for every well-formed problem [p] (decidable
    [wf_nnf_b]: gates with at least one input, literals in range, gate references positive -- forward
    references allowed --, root = a constant, an input literal or the last gate, acyclic if
    [check_acyclic]; sizes within MAX_CAPACITY) the file written by [print_nnf] is read back as [p];
    with [var_order] the same for any well-formed variable set (order tree / linear order / names). *)
From Coq Require Import List NArith ZArith Bool Arith Lia.
From OxiVerif Require Import IO.AigerParse IO.AigerLexProofs IO.AigerSecProofs IO.AigerTotalProofs
  IO.DimacsParse IO.DimacsProofs IO.TreeParse IO.TreeProofs IO.PreambleProofs IO.PreambleRtProofs
  IO.NnfParse IO.NnfProofs.
Import ListNotations.
Open Scope N_scope.

(* ------------------------------------------------------------------ *)
(** ** Lines *)

Lemma p_i64_dec (neg : bool) (n : N) (R : list N) : n < two63 -> nodigit R ->
  p_i64 ((if neg then [45] else []) ++ dec n ++ R) = POk ((neg, n), R).
Proof.
  intros Hn HR. unfold p_i64.
  destruct (dec_head n) as (c & t & E & Hc).
  assert (Hc45 : c =? 45 = false) by (apply is_digit_range in Hc; apply N.eqb_neq; lia).
  assert (Hc43 : c =? 43 = false) by (apply is_digit_range in Hc; apply N.eqb_neq; lia).
  assert (Ed : dec n ++ R = c :: (t ++ R)) by (rewrite E; reflexivity).
  assert (Hp : p_u64 (dec n ++ R) = POk (n, R)) by (apply p_u64_dec; [unfold two63, two64 in *; lia|exact HR]).
  unfold p_u64 in Hp. rewrite Ed in Hp. rewrite Hc in Hp.
  destruct (digits_val (c :: t ++ R) 0) as [v r'] eqn:Edv.
  destruct (v <? two64); [|discriminate]. inversion Hp; subst v r'.
  destruct neg; cbn [app starts_with tl].
  - replace (45 =? 45) with true by reflexivity. rewrite Ed. rewrite Hc. rewrite Edv.
    destruct (N.leb_spec n two63); [reflexivity|lia].
  - rewrite Ed. cbn [starts_with]. rewrite Hc45, Hc43, Hc, Edv.
    destruct (N.ltb_spec n two63); [reflexivity|lia].
Qed.

Lemma nnf_line_lit nn ni neg k R : k < ni -> ni <= max_capacity ->
  nnf_line nn ni (print_nnf_lit neg k ++ R) = POk (NLit (ALIn neg k), R).
Proof.
  intros Hk Hni. unfold nnf_line, print_nnf_lit. cbn [app].
  replace ((76 =? 65) || (76 =? 97) || (76 =? 66) || (76 =? 98) || (76 =? 88) || (76 =? 120)) with false by reflexivity.
  replace ((76 =? 79) || (76 =? 111)) with false by reflexivity.
  replace ((76 =? 76) || (76 =? 108)) with true by reflexivity.
  assert (Hsp : space1 (32 :: (if neg then [45] else []) ++ dec (k + 1) ++ nl ++ R)
                = POk ((if neg then [45] else []) ++ dec (k + 1) ++ nl ++ R)).
  { destruct neg; [reflexivity|]. cbn [app]. apply space1_32. }
  rewrite <- !app_assoc. rewrite Hsp. cbn [pbind].
  rewrite p_i64_dec by (try reflexivity; unfold max_capacity, two63 in *; lia). cbn [pbind].
  destruct (N.eqb_spec (k + 1) 0); [lia|]. destruct (N.ltb_spec ni (k + 1)); [lia|]. cbn [orb pbind].
  change (line_ending (space0 (nl ++ R))) with (POk R : pres (list N)). cbn [pbind].
  replace (k + 1 - 1) with k by lia. reflexivity.
Qed.

Lemma p_u64_zero R : nodigit R -> p_u64 (48 :: R) = POk (0, R).
Proof. intros H. change (48 :: R) with (dec 0 ++ R). apply p_u64_dec; [reflexivity|exact H]. Qed.

Lemma nnf_line_true nn ni R : nnf_line nn ni ([65; 32; 48; 10] ++ R) = POk (NLit (ALConst true), R).
Proof.
  unfold nnf_line. cbn [app].
  replace ((65 =? 65) || (65 =? 97) || (65 =? 66) || (65 =? 98) || (65 =? 88) || (65 =? 120)) with true by reflexivity.
  change (space1 (32 :: 48 :: 10 :: R)) with (POk (48 :: 10 :: R) : pres (list N)). cbn [pbind].
  rewrite p_u64_zero by reflexivity. cbn [pbind]. reflexivity.
Qed.

Lemma nnf_line_false nn ni R : nnf_line nn ni ([79; 32; 48; 32; 48; 10] ++ R) = POk (NLit (ALConst false), R).
Proof.
  unfold nnf_line. cbn [app].
  replace ((79 =? 65) || (79 =? 97) || (79 =? 66) || (79 =? 98) || (79 =? 88) || (79 =? 120)) with false by reflexivity.
  replace ((79 =? 79) || (79 =? 111)) with true by reflexivity.
  change (space1 (32 :: 48 :: 32 :: 48 :: 10 :: R)) with (POk (48 :: 32 :: 48 :: 10 :: R) : pres (list N)). cbn [pbind].
  rewrite p_u64_zero by reflexivity. cbn [pbind].
  destruct (N.ltb_spec ni 0); [lia|].
  change (space1 (32 :: 48 :: 10 :: R)) with (POk (48 :: 10 :: R) : pres (list N)). cbn [pbind].
  rewrite p_u64_zero by reflexivity. cbn [pbind]. reflexivity.
Qed.

Lemma nnf_child_print nn c R : c < nn -> nn <= max_capacity -> nodigit R ->
  nnf_child nn (sp ++ dec c ++ R) = POk (c, R).
Proof.
  intros Hc Hn HR. unfold nnf_child. cbn [sp app]. rewrite space1_32. cbn [pbind].
  rewrite p_u64_dec by (try exact HR; unfold max_capacity, two64 in *; lia). cbn [pbind].
  destruct (N.leb_spec nn c); [lia|reflexivity].
Qed.

Lemma nnf_children_print nn (cs : list N) R : nn <= max_capacity -> Forall (fun c => c < nn) cs ->
  collect (lenN cs) (nnf_child nn) (flat_map (fun c => sp ++ dec c) cs ++ nl ++ R) = POk (cs, nl ++ R).
Proof.
  intros Hn Hcs. rewrite <- (map_id cs) at 3.
  apply (collect_print_guard nodigit); try reflexivity.
  - intros x E. destruct (dec_head x) as (c & t & Ed & _). rewrite Ed in E. discriminate.
  - intros x r Hx Hr. rewrite <- app_assoc. rewrite Forall_forall in Hcs. apply nnf_child_print; auto.
Qed.

Definition gate_line (nv : N) (g : dgate) : nline := NGate (fst g) (map (nnf_node_of nv) (snd g)).

Lemma nnf_line_gate nn ni nv g R : nn <= max_capacity -> snd g <> [] -> lenN (snd g) < two64 ->
  Forall (fun l => nnf_node_of nv l < nn) (snd g) ->
  nnf_line nn ni (print_nnf_gate nv g ++ R) = POk (gate_line nv g, R).
Proof.
  intros Hn Hne Hlen Hch. destruct g as [k ins]. cbn [fst snd] in *.
  unfold nnf_line, print_nnf_gate, gate_line. cbn [fst snd].
  assert (Hcnt : lenN ins <> 0) by (destruct ins; [congruence|rewrite lenN_cons; lia]).
  assert (Hfm : flat_map (fun l => sp ++ dec (nnf_node_of nv l)) ins
                = flat_map (fun c => sp ++ dec c) (map (nnf_node_of nv) ins)).
  { clear. induction ins as [|l ins IH]; [reflexivity|]. cbn [flat_map map]. rewrite IH. reflexivity. }
  assert (Hnd : nodigit (flat_map (fun l => sp ++ dec (nnf_node_of nv l)) ins ++ nl ++ R)).
  { destruct ins; reflexivity. }
  assert (Hcs : Forall (fun c => c < nn) (map (nnf_node_of nv) ins)).
  { apply Forall_forall. intros c Hc. apply in_map_iff in Hc. destruct Hc as (l & <- & Hl).
    rewrite Forall_forall in Hch. apply Hch. exact Hl. }
  pose proof (nnf_children_print nn (map (nnf_node_of nv) ins) R Hn Hcs) as Hcoll.
  rewrite lenN_map, <- Hfm in Hcoll.
  destruct k; cbn [app]; rewrite <- !app_assoc.
  - (* OR: "O 0 n ..." *)
    replace ((79 =? 65) || (79 =? 97) || (79 =? 66) || (79 =? 98) || (79 =? 88) || (79 =? 120)) with false by reflexivity.
    replace ((79 =? 79) || (79 =? 111)) with true by reflexivity.
    change (space1 (32 :: 48 :: 32 :: ?X)) with (POk (48 :: 32 :: X) : pres (list N)). cbn [pbind].
    rewrite p_u64_zero by reflexivity. cbn [pbind].
    destruct (N.ltb_spec ni 0); [lia|]. rewrite space1_32. cbn [pbind].
    rewrite p_u64_dec by assumption. cbn [pbind].
    replace (negb (0 =? 0) && negb (lenN ins =? 2)) with false by reflexivity.
    destruct (N.eqb_spec (lenN ins) 0); [contradiction|].
    rewrite Hcoll. cbn [pbind]. reflexivity.
  - (* XOR *)
    replace ((88 =? 65) || (88 =? 97) || (88 =? 66) || (88 =? 98) || (88 =? 88) || (88 =? 120)) with true by reflexivity.
    replace ((88 =? 88) || (88 =? 120)) with true by reflexivity.
    rewrite space1_32. cbn [pbind]. rewrite p_u64_dec by assumption. cbn [pbind].
    destruct (N.eqb_spec (lenN ins) 0); [contradiction|].
    rewrite Hcoll. cbn [pbind]. reflexivity.
  - (* AND *)
    replace ((65 =? 65) || (65 =? 97) || (65 =? 66) || (65 =? 98) || (65 =? 88) || (65 =? 120)) with true by reflexivity.
    replace ((65 =? 88) || (65 =? 120)) with false by reflexivity.
    rewrite space1_32. cbn [pbind]. rewrite p_u64_dec by assumption. cbn [pbind].
    destruct (N.eqb_spec (lenN ins) 0); [contradiction|].
    rewrite Hcoll. cbn [pbind]. reflexivity.
Qed.

(* ------------------------------------------------------------------ *)
(** ** The lines of a printed problem *)

Inductive item := ILit (neg : bool) (k : N) | ITrue | IFalse | IGate (g : dgate).

Definition item_print (nv : N) (x : item) : list N :=
  match x with
  | ILit neg k => print_nnf_lit neg k
  | ITrue => [65; 32; 48; 10]
  | IFalse => [79; 32; 48; 32; 48; 10]
  | IGate g => print_nnf_gate nv g
  end.

Definition item_line (nv : N) (x : item) : nline :=
  match x with
  | ILit neg k => NLit (ALIn neg k)
  | ITrue => NLit (ALConst true)
  | IFalse => NLit (ALConst false)
  | IGate g => gate_line nv g
  end.

Definition lit_items (nv : N) : list item := flat_map (fun k => [ILit false k; ILit true k]) (seqN 0 nv).
Definition root_items (root : alit) : list item :=
  match root with
  | ALIn neg k => [ILit neg k]
  | ALConst true => [ITrue]
  | ALConst false => [IFalse]
  | _ => []
  end.

Definition all_items (p : rproblem) : list item :=
  lit_items (vs_len (rp_vars p)) ++ [ITrue; IFalse] ++ map IGate (rp_gates p) ++ root_items (rp_root p).

Lemma item_print_ne nv x : item_print nv x <> [].
Proof.
  destruct x as [neg k| | |g]; try discriminate. cbn [item_print]. unfold print_nnf_gate. destruct (fst g); discriminate.
Qed.

Lemma lit_items_print nv :
  flat_map (item_print nv) (lit_items nv)
  = flat_map (fun k => print_nnf_lit false k ++ print_nnf_lit true k) (seqN 0 nv).
Proof.
  unfold lit_items. induction (seqN 0 nv) as [|k l IH]; [reflexivity|].
  change (flat_map ?f (k :: l)) with (f k ++ flat_map f l).
  rewrite flat_map_app, IH. cbn [flat_map item_print]. rewrite app_nil_r, <- app_assoc. reflexivity.
Qed.

Lemma lit_items_len nv : lenN (lit_items nv) = 2 * nv.
Proof.
  unfold lit_items, lenN.
  assert (H : forall l : list N, length (flat_map (fun k => [ILit false k; ILit true k]) l) = (2 * length l)%nat).
  { induction l as [|k l IH]; [reflexivity|]. cbn [flat_map length app]. rewrite IH. lia. }
  rewrite H, seqN_length. lia.
Qed.

Lemma root_items_print nv root : flat_map (item_print nv) (root_items root) = print_nnf_root root.
Proof. destruct root as [[|]| | |]; cbn; rewrite ?app_nil_r; reflexivity. Qed.

Lemma root_items_len root : lenN (root_items root) = nnf_root_extra root.
Proof. destruct root as [[|]| | |]; reflexivity. Qed.

Lemma all_items_len p :
  lenN (all_items p) = 2 * vs_len (rp_vars p) + 2 + lenN (rp_gates p) + nnf_root_extra (rp_root p).
Proof.
  unfold all_items. rewrite !lenN_app, lit_items_len, lenN_map, root_items_len.
  assert (lenN [ITrue; IFalse] = 2) by reflexivity. lia.
Qed.

Lemma body_print p :
  print_nnf_body p =
  [110; 110; 102; 32] ++ dec (lenN (all_items p)) ++ sp
  ++ dec (list_sumN (map (fun g => lenN (snd g)) (rp_gates p))) ++ sp ++ dec (vs_len (rp_vars p)) ++ nl
  ++ flat_map (item_print (vs_len (rp_vars p))) (all_items p).
Proof.
  rewrite all_items_len. unfold print_nnf_body, all_items.
  rewrite !flat_map_app, lit_items_print, root_items_print.
  assert (Hg : flat_map (item_print (vs_len (rp_vars p))) (map IGate (rp_gates p))
               = flat_map (print_nnf_gate (vs_len (rp_vars p))) (rp_gates p)).
  { induction (rp_gates p) as [|g l IH]; [reflexivity|]. cbn [map flat_map item_print]. rewrite IH. reflexivity. }
  rewrite Hg. reflexivity.
Qed.

Lemma nnf_problem_line_print nn ne ni R : nn <= max_capacity -> ne <= max_capacity -> ni <= max_capacity ->
  nnf_problem_line ([110; 110; 102; 32] ++ dec nn ++ sp ++ dec ne ++ sp ++ dec ni ++ nl ++ R)
  = POk ((nn, ne, ni), R).
Proof.
  intros H1 H2 H3. unfold nnf_problem_line. cbn [app strip_prefix]. rewrite !N.eqb_refl.
  rewrite space1_32. cbn [pbind].
  rewrite p_usize_dec by (try reflexivity; assumption). cbn [pbind].
  cbn [sp app]. rewrite space1_32. cbn [pbind].
  rewrite p_usize_dec by (try reflexivity; assumption). cbn [pbind].
  rewrite space1_32. cbn [pbind].
  rewrite p_usize_dec by (try reflexivity; assumption). cbn [pbind]. reflexivity.
Qed.

(* ------------------------------------------------------------------ *)
(** ** Node literals and gates of the lines *)

Lemma node_lits_app : forall l1 l2 g, node_lits (l1 ++ l2) g = node_lits l1 g ++ node_lits l2 (g + cnt_gates l1).
Proof.
  induction l1 as [|[l|k ch] l1 IH]; intros l2 g; cbn [app node_lits cnt_gates].
  - rewrite N.add_0_r. reflexivity.
  - rewrite IH. reflexivity.
  - rewrite IH. f_equal. f_equal. f_equal. lia.
Qed.

Lemma gates_of_app l1 l2 nodes : gates_of (l1 ++ l2) nodes = gates_of l1 nodes ++ gates_of l2 nodes.
Proof. unfold gates_of. apply flat_map_app. Qed.

Definition lit_of (x : nline) : alit := match x with NLit l => l | _ => ALConst false end.
Definition only_lits (ls : list nline) : Prop := Forall (fun x => match x with NLit _ => True | _ => False end) ls.

Lemma only_lits_facts ls : only_lits ls ->
  cnt_gates ls = 0 /\ (forall nodes, gates_of ls nodes = []) /\ forall g, node_lits ls g = map lit_of ls.
Proof.
  induction 1 as [|x ls Hx _ IH]; [repeat split|]. destruct x as [l|]; [|contradiction].
  destruct IH as (I1 & I2 & I3). cbn [cnt_gates node_lits map]. split; [exact I1|]. split.
  - intros nodes. unfold gates_of in *. cbn [flat_map app]. apply I2.
  - intros g. rewrite I3. reflexivity.
Qed.

Lemma lit_items_only nv : only_lits (map (item_line nv) (lit_items nv)).
Proof.
  unfold lit_items, only_lits. induction (seqN 0 nv) as [|k l IH]; [constructor|].
  cbn [flat_map app map item_line]. constructor; [exact I|]. constructor; [exact I|exact IH].
Qed.

Lemma root_items_only nv root : only_lits (map (item_line nv) (root_items root)).
Proof. destruct root as [[|]| | |]; repeat constructor. Qed.

Lemma lit_nodes_nth nv : forall k (neg : bool), k < nv ->
  nth (N.to_nat (2 * k + b2n neg)) (map lit_of (map (item_line nv) (lit_items nv))) (ALConst false) = ALIn neg k.
Proof.
  intros k neg Hk. unfold lit_items.
  assert (G : forall (l : list N) j (d : N), (j < length l)%nat ->
            nth (2 * j + N.to_nat (b2n neg))
                (map lit_of (map (item_line nv) (flat_map (fun k0 => [ILit false k0; ILit true k0]) l)))
                (ALConst false) = ALIn neg (nth j l d)).
  { induction l as [|x l IH]; intros j d Hj; [cbn in Hj; lia|].
    cbn [flat_map app map item_line lit_of]. destruct j as [|j].
    - destruct neg; reflexivity.
    - replace (2 * S j + N.to_nat (b2n neg))%nat with (S (S (2 * j + N.to_nat (b2n neg)))) by lia.
      cbn [nth length] in *. apply IH. lia. }
  replace (N.to_nat (2 * k + b2n neg)) with (2 * N.to_nat k + N.to_nat (b2n neg))%nat by (destruct neg; cbn [b2n]; lia).
  rewrite (G (seqN 0 nv) (N.to_nat k) 0) by (rewrite seqN_length; lia).
  f_equal. pose proof (nth_error_seqN 0 nv (N.to_nat k)) as E.
  destruct (Nat.ltb_spec (N.to_nat k) (N.to_nat nv)); [|lia].
  apply nth_error_nth with (d := 0) in E. rewrite E. lia.
Qed.

Lemma gate_nodes_nth nv : forall gates g j, (j < length gates)%nat ->
  nth j (node_lits (map (item_line nv) (map IGate gates)) g) (ALConst false) = ALGate false (g + N.of_nat j).
Proof.
  induction gates as [|x gates IH]; intros g j Hj; [cbn in Hj; lia|].
  cbn [map item_line gate_line node_lits]. destruct j as [|j].
  - cbn [nth]. f_equal. lia.
  - cbn [nth length] in *. rewrite IH by lia. f_equal. lia.
Qed.

Lemma gate_items_cnt nv gates : cnt_gates (map (item_line nv) (map IGate gates)) = lenN gates.
Proof.
  induction gates as [|x gates IH]; [reflexivity|]. cbn [map item_line gate_line cnt_gates].
  rewrite IH, lenN_cons. reflexivity.
Qed.

Lemma gate_items_gates nv gates nodes :
  (forall g l, In g gates -> In l (snd g) -> nth (N.to_nat (nnf_node_of nv l)) nodes (ALConst false) = l) ->
  gates_of (map (item_line nv) (map IGate gates)) nodes = gates.
Proof.
  induction gates as [|x gates IH]; intros H; [reflexivity|].
  unfold gates_of in *. cbn [map item_line gate_line flat_map app]. f_equal.
  - destruct x as [k ins]. cbn [fst snd]. f_equal. rewrite map_map. rewrite <- (map_id ins) at 2.
    apply map_ext_in. intros l Hl. apply (H (k, ins)); [left; reflexivity|exact Hl].
  - apply IH. intros g l Hg Hl. apply (H g l); [right; exact Hg|exact Hl].
Qed.

(* ------------------------------------------------------------------ *)
(** ** The round trip *)

Section Roundtrip.
  Variables (ca : bool) (p : rproblem).
  Hypothesis Hwf : wf_nnf_b ca p = true.

  Let nv := vs_len (rp_vars p).
  Let gates := rp_gates p.
  Let ng := lenN gates.
  Let root := rp_root p.
  Let nn := lenN (all_items p).

  Lemma wf_unpack :
    2 * nv + 3 + ng <= max_capacity /\
    list_sumN (map (fun g => lenN (snd g)) gates) <= max_capacity /\
    (forall g, In g gates -> snd g <> [] /\ lenN (snd g) < two64 /\
                             forall l, In l (snd g) -> nnf_lit_ok_b nv ng l = true) /\
    nnf_root_ok_b nv ng root = true /\ (ca = true -> acyclic_g gates = true).
  Proof.
    unfold wf_nnf_b in Hwf. fold nv gates ng root in Hwf. rewrite !andb_true_iff in Hwf.
    destruct Hwf as ((((H1 & H2) & H3) & H4) & H5).
    split; [apply N.leb_le; exact H1|]. split; [apply N.leb_le; exact H2|]. split; [|split; [exact H4|]].
    - intros g Hg. rewrite forallb_forall in H3. specialize (H3 g Hg). rewrite !andb_true_iff in H3.
      destruct H3 as ((A & B) & C). split; [destruct (snd g); [discriminate|discriminate]|].
      split; [apply N.ltb_lt; exact B|]. intros l Hl. rewrite forallb_forall in C. exact (C l Hl).
    - intros ->. cbn in H5. exact H5.
  Qed.

  Lemma nn_eq : nn = 2 * nv + 2 + ng + nnf_root_extra root.
  Proof. apply all_items_len. Qed.

  Lemma node_of_lt l : nnf_lit_ok_b nv ng l = true -> nnf_node_of nv l < nn.
  Proof.
    rewrite nn_eq. destruct l as [[|]| s k | s g |]; cbn [nnf_lit_ok_b nnf_node_of]; try discriminate; try lia.
    - intros H. apply N.ltb_lt in H. destruct s; cbn [b2n]; lia.
    - intros H. apply andb_true_iff in H. destruct H as [_ H]. apply N.ltb_lt in H. lia.
  Qed.

  Lemma nn_cap : nn <= max_capacity /\ nv <= max_capacity.
  Proof.
    destruct wf_unpack as (Hcap & _). rewrite nn_eq.
    assert (nnf_root_extra root <= 1) by (destruct root; cbn; lia). lia.
  Qed.

  Lemma lines_parse R :
    collect nn (nnf_line nn nv) (flat_map (item_print nv) (all_items p) ++ R)
    = POk (map (item_line nv) (all_items p), R).
  Proof.
    destruct wf_unpack as (Hcap & _ & Hg & Hroot & _). destruct nn_cap as [Hnn Hnv].
    apply collect_print; [reflexivity|apply item_print_ne|].
    intros x r Hx. unfold all_items in Hx. fold nv gates root in Hx.
    repeat (apply in_app_or in Hx; destruct Hx as [Hx|Hx]).
    - unfold lit_items in Hx. apply in_flat_map in Hx. destruct Hx as (k & Hk & Hx). apply In_seqN in Hk.
      destruct Hx as [<-|[<-|[]]]; apply nnf_line_lit; try assumption; lia.
    - destruct Hx as [<-|[<-|[]]]; [apply nnf_line_true|apply nnf_line_false].
    - apply in_map_iff in Hx. destruct Hx as (g & <- & Hgin). destruct (Hg g Hgin) as (Hne & Hlen & Hl).
      apply nnf_line_gate; try assumption.
      apply Forall_forall. intros l Hlin. apply node_of_lt. apply Hl. exact Hlin.
    - unfold root_items in Hx. destruct root as [[|]| s k | |]; try destruct Hx as [<-|[]]; try destruct Hx.
      + apply nnf_line_true.
      + apply nnf_line_false.
      + cbn in Hroot. apply N.ltb_lt in Hroot. apply nnf_line_lit; assumption.
  Qed.

  Let lines := map (item_line nv) (all_items p).
  Let nodes := node_lits lines 0.

  Lemma lines_split :
    lines = map (item_line nv) (lit_items nv) ++ [NLit (ALConst true); NLit (ALConst false)]
            ++ map (item_line nv) (map IGate gates) ++ map (item_line nv) (root_items root).
  Proof. unfold lines, all_items. rewrite !map_app. reflexivity. Qed.

  Lemma nodes_split :
    nodes = map lit_of (map (item_line nv) (lit_items nv)) ++ [ALConst true; ALConst false]
            ++ node_lits (map (item_line nv) (map IGate gates)) 0
            ++ map lit_of (map (item_line nv) (root_items root)).
  Proof.
    unfold nodes. rewrite lines_split.
    destruct (only_lits_facts _ (lit_items_only nv)) as (C1 & _ & N1).
    destruct (only_lits_facts _ (root_items_only nv root)) as (_ & _ & N3).
    rewrite node_lits_app, N1, C1. cbn [app node_lits].
    rewrite node_lits_app, N3. rewrite !N.add_0_l. reflexivity.
  Qed.

  Lemma len_A : length (map lit_of (map (item_line nv) (lit_items nv))) = N.to_nat (2 * nv).
  Proof. rewrite !map_length. pose proof (lit_items_len nv) as H. unfold lenN in H. lia. Qed.

  Lemma nodes_nth l : nnf_lit_ok_b nv ng l = true -> nth (N.to_nat (nnf_node_of nv l)) nodes (ALConst false) = l.
  Proof.
    intros Hl. rewrite nodes_split. pose proof len_A as LA.
    destruct l as [[|]| s k | s g |]; cbn [nnf_lit_ok_b nnf_node_of] in *; try discriminate.
    - rewrite app_nth2 by lia. replace (N.to_nat (2 * nv) - _)%nat with 0%nat by lia. reflexivity.
    - rewrite app_nth2 by lia. replace (N.to_nat (2 * nv + 1) - _)%nat with 1%nat by lia. reflexivity.
    - apply N.ltb_lt in Hl. rewrite app_nth1 by (destruct s; cbn [b2n]; lia). apply lit_nodes_nth. exact Hl.
    - apply andb_true_iff in Hl. destruct Hl as [Hs Hg]. apply negb_true_iff in Hs. subst s. apply N.ltb_lt in Hg.
      rewrite app_nth2 by lia.
      replace (N.to_nat (2 * nv + 2 + g) - length (map lit_of (map (item_line nv) (lit_items nv))))%nat
        with (S (S (N.to_nat g))) by lia.
      cbn [app nth]. rewrite app_nth1.
      + rewrite gate_nodes_nth by (unfold ng, lenN in Hg; lia). f_equal. lia.
      + rewrite node_lits_length, !map_length. unfold ng, lenN in Hg. lia.
  Qed.

  Lemma gates_eval : gates_of lines nodes = gates.
  Proof.
    destruct wf_unpack as (_ & _ & Hg & _ & _).
    rewrite lines_split.
    destruct (only_lits_facts _ (lit_items_only nv)) as (_ & G1 & _).
    destruct (only_lits_facts _ (root_items_only nv root)) as (_ & G3 & _).
    rewrite !gates_of_app, G1, G3, app_nil_r. cbn [app].
    change (gates_of [NLit (ALConst true); NLit (ALConst false)] nodes) with (@nil dgate). cbn [app].
    apply gate_items_gates. intros g l Hgin Hl. apply nodes_nth. apply (Hg g Hgin). exact Hl.
  Qed.

  Lemma root_eval : last nodes (ALConst false) = root.
  Proof.
    destruct wf_unpack as (_ & _ & _ & Hroot & _).
    rewrite nodes_split. rewrite !app_assoc.
    destruct root as [[|]| s k | s g |] eqn:Er; cbn [root_items map item_line lit_of];
      try (rewrite last_last; reflexivity); try discriminate.
    cbn [nnf_root_ok_b] in Hroot. apply andb_true_iff in Hroot. destruct Hroot as [Hs Hg].
    apply negb_true_iff in Hs. subst s. apply N.eqb_eq in Hg.
    rewrite app_nil_r.
    assert (Hne : gates <> []).
    { intros E. unfold ng in Hg. rewrite E in Hg. unfold lenN in Hg. cbn [length] in Hg. lia. }
    destruct (exists_last Hne) as (gs & glast & Egs). rewrite Egs.
    rewrite !map_app. cbn [map item_line]. rewrite node_lits_app. cbn [node_lits gate_line]. rewrite app_assoc, last_last.
    f_equal. rewrite gate_items_cnt. unfold ng in Hg. rewrite Egs, lenN_app in Hg. unfold lenN in Hg at 2.
    cbn [length] in Hg. lia.
  Qed.

  (** what [parse_nnf] does behind the preamble *)
  Lemma tail_parse vars0 (r0 : list N) :
    vs_len vars0 = nv -> r0 = flat_map (item_print nv) (all_items p) ->
    (if nn =? 0 then PErr
     else
       do '(ls, r1) <- collect nn (nnf_line nn nv) r0;
       match multispace0 r1 with
       | _ :: _ => PErr
       | [] =>
         let nodes := node_lits ls 0 in
         let gates := gates_of ls nodes in
         if ca && negb (acyclic_g gates) then PErr
         else POk (mkRProblem vars0 gates (last nodes (ALConst false)))
       end)
    = POk (mkRProblem vars0 gates root).
  Proof.
    intros Hv ->. destruct wf_unpack as (_ & _ & _ & _ & Hac).
    assert (Hnn0 : nn <> 0) by (rewrite nn_eq; lia).
    destruct (N.eqb_spec nn 0); [contradiction|].
    rewrite <- (app_nil_r (flat_map (item_print nv) (all_items p))). rewrite lines_parse. cbn [pbind multispace0].
    fold lines. fold nodes. rewrite gates_eval, root_eval.
    assert (Hc : ca && negb (acyclic_g gates) = false).
    { destruct ca; [|reflexivity]. rewrite (Hac eq_refl). reflexivity. }
    rewrite Hc. reflexivity.
  Qed.
End Roundtrip.

(** round trip without variable order: comments are skipped, the variable set has no order / names *)
Theorem parse_print_nnf ca p : wf_nnf_b ca p = true -> rp_vars p = varset_new (vs_len (rp_vars p)) ->
  parse_nnf false ca (print_nnf p) = POk p.
Proof.
  intros Hwf Hvars. unfold parse_nnf, nnf_preamble, print_nnf. rewrite body_print.
  change (skip_comments false ([110; 110; 102; 32] ++ ?x)) with ([110; 110; 102; 32] ++ x).
  destruct (wf_unpack ca p Hwf) as (_ & Hsum & _). destruct (nn_cap ca p Hwf) as [Hnn Hnv].
  rewrite nnf_problem_line_print by assumption. cbn [pbind].
  etransitivity; [exact (tail_parse ca p Hwf (varset_new (vs_len (rp_vars p))) _ eq_refl eq_refl)|].
  rewrite <- Hvars. destruct p; reflexivity.
Qed.

(** round trip with variable order: the lines of [print_vars] in front of the problem line *)
Theorem parse_print_nnf_vo ca p : wf_nnf_b ca p = true -> wf_vars_b (rp_vars p) = true ->
  parse_nnf true ca (print_nnf_vo p) = POk p.
Proof.
  intros Hwf Hvars. unfold parse_nnf, nnf_preamble, print_nnf_vo. rewrite body_print.
  destruct (steps_print_vars None (rp_vars p)
              ([110; 110; 102; 32] ++ dec (lenN (all_items p)) ++ sp
               ++ dec (list_sumN (map (fun g => lenN (snd g)) (rp_gates p))) ++ sp ++ dec (vs_len (rp_vars p)) ++ nl
               ++ flat_map (item_print (vs_len (rp_vars p))) (all_items p)) Hvars)
    as (st & Hsteps & Hb & Ha & Hvs & _).
  rewrite (pre_loop_run _ _ _ _ _ Hsteps) by (apply pre_step_break; reflexivity). cbn [pbind].
  rewrite Hb.
  destruct (wf_unpack ca p Hwf) as (_ & Hsum & _). destruct (nn_cap ca p Hwf) as [Hnn Hnv].
  rewrite nnf_problem_line_print by assumption. cbn [pbind]. rewrite Ha, Hvs.
  etransitivity; [exact (tail_parse ca p Hwf (rp_vars p) _ eq_refl eq_refl)|]. destruct p; reflexivity.
Qed.

(** the hypotheses are satisfiable: three variables with an order tree and names, forward
    reference from gate 0 to gate 1, all three gate kinds *)
Definition ex_nnf : rproblem :=
  mkRProblem (mkVarSet 3 [1; 2; 0] (Some (TInner [TInner [TLeaf 1; TLeaf 2]; TLeaf 0])) [Some [97]; None; Some [99; 32; 100]])
             [(DOr, [ALGate false 1; ALIn true 0]); (DXor, [ALIn false 1; ALIn false 2; ALConst true]);
              (DAnd, [ALGate false 0; ALGate false 1])]
             (ALGate false 2).

Lemma ex_nnf_wf : wf_nnf_b true ex_nnf = true /\ wf_vars_b (rp_vars ex_nnf) = true /\
                  parse_nnf true true (print_nnf_vo ex_nnf) = POk ex_nnf.
Proof. split; [vm_compute; reflexivity|]. split; vm_compute; reflexivity. Qed.
