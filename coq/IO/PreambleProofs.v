(** * C18q proofs, part 3: the variable-order preamble ([pre_loop] of TreeParse.v)

    - [pre_loop_nofuel], [pre_loop_len]: never [PFuel] with the length of the input (+1) as fuel; every iteration
      consumes at least one byte
    - [varset_valid]: the variable set of every accepted preamble satisfies the three assertions of
      [VarSet::check_valid] (the debug assertion of the real code), its names vector is not longer
      than the number of variables
    - [pre_loop_varset] ([varset_order_ok]): the linear order is empty or a permutation of all variables; with an
      order tree it is the flattened tree *)
From Coq Require Import List NArith ZArith Bool Arith Lia Permutation.
From OxiVerif Require Import Base.ListFacts IO.AigerParse IO.AigerLexProofs IO.AigerSecProofs IO.AigerTotalProofs
  IO.DimacsParse IO.TreeParse IO.TreeProofs.
Import ListNotations.
Open Scope N_scope.

(* ------------------------------------------------------------------ *)
(** ** Consumption and totality *)

Lemma skip_line_len : forall bs, (length (skip_line bs) <= length bs)%nat.
Proof. induction bs as [|b r IH]; cbn; [lia|]. destruct (b =? 10); lia. Qed.

Lemma c_space1_len bs r : c_space1 bs = Some r -> (length r + 2 <= length bs)%nat.
Proof.
  unfold c_space1. destruct (strip_prefix [99] bs) as [r0|] eqn:E; [|discriminate].
  apply strip_prefix_len in E. cbn [length] in E.
  pose proof (space1_len r0) as H. unfold strict0 in H.
  destruct (space1 r0) as [r1| |]; try discriminate. intros X; inversion X; subst. lia.
Qed.

Lemma tag2_space1_len a b bs r : tag2_space1 a b bs = Some r -> (length r < length bs)%nat.
Proof.
  unfold tag2_space1. destruct (strip_prefix [a; b] bs) as [r0|] eqn:E; [|discriminate].
  apply strip_prefix_len in E. cbn [length] in E.
  pose proof (space1_len r0) as H. unfold strict0 in H.
  destruct (space1 r0) as [r1| |]; try discriminate. intros X; inversion X; subst. lia.
Qed.

Lemma eol_len bs : strict0 (eol bs) bs.
Proof.
  unfold eol. pose proof (space0_len bs). pose proof (line_ending_len (space0 bs)) as H1.
  unfold strict0 in *. destruct (line_ending (space0 bs)); try exact I; try contradiction. lia.
Qed.

Lemma var_order_record_len bs : strict (var_order_record bs) bs.
Proof.
  unfold var_order_record. apply strict_bind; [apply p_u64_len|intros v r0].
  apply weak_bind; [apply not_line_ending_len|intros name r1].
  apply weak0_bind; [apply strict0_weak0, line_ending_len|intros r2].
  destruct (trim name); [cbn; lia|]. destruct name as [|b ?]; [exact I|].
  destruct (is_sp b); [cbn; lia|exact I].
Qed.

(** an iteration that continues consumes input; no iteration reports [PFuel] *)
Lemma pre_step_len co st bs :
  match pre_step co st bs with
  | POk (Some (_, r)) => (length r < length bs)%nat
  | POk None => True
  | PErr => True
  | PFuel => False
  end.
Proof.
  unfold pre_step. destruct (c_space1 bs) as [nx|] eqn:Ec; [|exact I].
  apply c_space1_len in Ec.
  destruct (match co with Some _ => tag2_space1 99 111 nx | None => None end) as [nx2|] eqn:Eco.
  - assert (Hl : (length nx2 < length nx)%nat).
    { destruct co; [|discriminate]. eapply tag2_space1_len; eassumption. }
    destruct co as [[|]|]; [| |discriminate].
    + destruct (ps_ctree st); [exact I|].
      pose proof (p_tree_len false false nx2) as Ht. unfold strict in Ht.
      destruct (p_tree false false nx2) as [[[t mx] r]| |]; cbn [pbind]; try exact I; [|contradiction].
      pose proof (eol_len r) as He. unfold strict0 in He.
      destruct (eol r) as [r'| |]; cbn [pbind]; try exact I; [|contradiction]. lia.
    + pose proof (skip_line_len bs). destruct bs as [|b bs']; [cbn in Ec; lia|].
      cbn [skip_line]. destruct (b =? 10); cbn [length]; [lia|]. pose proof (skip_line_len bs'). lia.
  - destruct (tag2_space1 118 111 nx) as [nx2|] eqn:Evo.
    + apply tag2_space1_len in Evo.
      destruct (ps_tree st); [exact I|].
      pose proof (p_tree_len true true nx2) as Ht. unfold strict in Ht.
      destruct (p_tree true true nx2) as [[[t mx] r]| |]; cbn [pbind]; try exact I; [|contradiction].
      pose proof (eol_len r) as He. unfold strict0 in He.
      destruct (eol r) as [r'| |]; cbn [pbind]; try exact I; [|contradiction]. lia.
    + pose proof (var_order_record_len nx) as Hv. unfold strict in Hv.
      destruct (var_order_record nx) as [[[v name] r]| |]; try exact I.
      destruct (record_apply st v name); [lia|exact I].
Qed.

Lemma pre_loop_nofuel co : forall f st bs, (length bs < f)%nat -> pre_loop f co st bs <> PFuel.
Proof.
  induction f as [|f IH]; intros st bs Hf; [lia|]. cbn [pre_loop].
  pose proof (pre_step_len co st bs) as H.
  destruct (pre_step co st bs) as [[[st' r]|]| |]; cbn [pbind]; try discriminate; [|contradiction].
  apply IH. lia.
Qed.

Lemma pre_loop_len co : forall f st bs st' r, pre_loop f co st bs = POk (st', r) ->
  (length r <= length bs)%nat.
Proof.
  induction f as [|f IH]; intros st bs st' r H; [discriminate|]. cbn [pre_loop] in H.
  pose proof (pre_step_len co st bs) as Hs.
  destruct (pre_step co st bs) as [[[st1 r1]|]| |]; cbn [pbind] in H; try discriminate.
  - apply IH in H. lia.
  - inversion H; subst. lia.
Qed.

(* ------------------------------------------------------------------ *)
(** ** The invariant of the loop *)

(** without an order tree the order lists distinct variables that have an entry in the names
    vector; with a tree it is the flattened tree, a permutation of [0 .. max] *)
Definition ps_inv (st : pstate) : Prop :=
  match ps_tree st with
  | None =>
    NoDup (ps_order st) /\
    forall v, In v (ps_order st) -> v < lenN (ps_names st) /\ nth (N.to_nat v) (ps_names st) None <> None
  | Some (t, mx) =>
    ps_order st = flatten t /\ Permutation (flatten t) (seqN 0 (mx + 1)) /\ lenN (flatten t) = mx + 1
  end.

Lemma ps_inv_init : ps_inv ps_init.
Proof. split; [constructor|intros v []]. Qed.

Lemma nth_upd {A} : forall (l : list A) i x j d,
  nth j (upd l i x) d = if (Nat.eqb j i && Nat.ltb i (length l))%bool then x else nth j l d.
Proof.
  induction l as [|y l IH]; intros i x j d.
  - cbn. destruct j, i; cbn; try reflexivity. rewrite andb_false_r. reflexivity.
  - destruct i as [|i], j as [|j]; cbn [upd nth length]; try reflexivity.
    rewrite IH. change (Nat.eqb (S j) (S i)) with (Nat.eqb j i).
    change (Nat.ltb (S i) (S (length l))) with (Nat.ltb i (length l)). reflexivity.
Qed.

Lemma lenN_app {A} (a b : list A) : lenN (a ++ b) = lenN a + lenN b.
Proof. unfold lenN. rewrite app_length. lia. Qed.

Lemma lenN_repeat {A} (x : A) n : lenN (repeat x n) = N.of_nat n.
Proof. unfold lenN. rewrite repeat_length. reflexivity. Qed.

Lemma lenN_upd {A} (l : list A) i x : lenN (upd l i x) = lenN l.
Proof. unfold lenN. rewrite upd_length. reflexivity. Qed.

Lemma nth_app_repeat_None {A} (l : list (option A)) k j :
  nth j (l ++ repeat None k) None = nth j l None.
Proof.
  destruct (Nat.lt_ge_cases j (length l)) as [H|H].
  - apply app_nth1. exact H.
  - rewrite app_nth2 by exact H. rewrite (nth_overflow l) by exact H.
    destruct (Nat.lt_ge_cases (j - length l) k) as [H2|H2].
    + apply nth_repeat.
    + apply nth_overflow. rewrite repeat_length. exact H2.
Qed.

Lemma grow_names_spec names v names' : grow_names names v = Some names' -> v <> 0 ->
  lenN names' = N.max (lenN names) v /\
  nth (N.to_nat (v - 1)) names' None = None /\
  forall j, nth j names' None = nth j names None.
Proof.
  unfold grow_names. intros H Hv. destruct (N.ltb_spec (lenN names) v) as [Hlt|Hge].
  - inversion H; subst names'. clear H. split; [|split].
    + rewrite lenN_app, lenN_repeat. lia.
    + rewrite nth_app_repeat_None. apply nth_overflow. unfold lenN in Hlt. lia.
    + intros j. apply nth_app_repeat_None.
  - destruct (nth (N.to_nat (v - 1)) names None) eqn:E; [discriminate|].
    inversion H; subst names'. split; [lia|]. split; [exact E|reflexivity].
Qed.

Lemma record_apply_inv st v name st' : ps_inv st -> record_apply st v name = Some st' -> ps_inv st'.
Proof.
  intros Hinv H. unfold record_apply in H.
  destruct (N.eqb_spec v 0) as [|Hv0]; [discriminate|].
  destruct (max_capacity <? v); [discriminate|].
  destruct (grow_names (ps_names st) v) as [names|] eqn:Hg; [|discriminate].
  destruct (name_entry names name) as [e|]; [|discriminate].
  inversion H; subst st'. clear H.
  destruct (grow_names_spec _ _ _ Hg Hv0) as (Hlen & Hnone & Hsame).
  unfold ps_inv in *. cbn [ps_tree ps_order ps_names].
  destruct (ps_tree st) as [[t mx]|]; [exact Hinv|].
  destruct Hinv as [Hnd Hin].
  assert (Hvlt : (N.to_nat (v - 1) < length names)%nat) by (unfold lenN in Hlen; lia).
  split.
  - apply NoDup_snoc; [exact Hnd|]. intros Hc. destruct (Hin _ Hc) as [_ Hp].
    rewrite <- Hsame in Hp. congruence.
  - intros w Hw. rewrite lenN_upd. apply in_app_or in Hw. destruct Hw as [Hw|[<-|[]]].
    + destruct (Hin _ Hw) as [Hl Hp]. split; [lia|].
      rewrite nth_upd. destruct (Nat.eqb (N.to_nat w) (N.to_nat (v - 1)) && Nat.ltb (N.to_nat (v - 1)) (length names))%bool;
        [discriminate|]. rewrite Hsame. exact Hp.
    + split; [lia|]. rewrite nth_upd, Nat.eqb_refl. cbn [andb].
      destruct (Nat.ltb_spec (N.to_nat (v - 1)) (length names)); [discriminate|lia].
Qed.

Lemma pre_step_inv co st bs st' r : ps_inv st -> pre_step co st bs = POk (Some (st', r)) -> ps_inv st'.
Proof.
  intros Hinv H. unfold pre_step in H. destruct (c_space1 bs) as [nx|]; [|discriminate].
  destruct (match co with Some _ => tag2_space1 99 111 nx | None => None end) as [nx2|].
  - destruct co as [[|]|].
    + destruct (ps_ctree st); [discriminate|].
      destruct (p_tree false false nx2) as [[[t mx] r0]| |]; cbn [pbind] in H; try discriminate.
      destruct (eol r0); cbn [pbind] in H; try discriminate. inversion H; subst. exact Hinv.
    + inversion H; subst. exact Hinv.
    + inversion H; subst. exact Hinv.
  - destruct (tag2_space1 118 111 nx) as [nx2|].
    + destruct (ps_tree st) eqn:Et; [discriminate|].
      destruct (p_tree true true nx2) as [[[t mx] r0]| |] eqn:Ep; cbn [pbind] in H; try discriminate.
      destruct (eol r0); cbn [pbind] in H; try discriminate. inversion H; subst.
      unfold ps_inv. cbn [ps_tree ps_order]. destruct (p_tree_perm _ _ _ _ _ Ep) as [P L]. auto.
    + destruct (var_order_record nx) as [[[v name] r0]| |]; try discriminate.
      destruct (record_apply st v name) as [st1|] eqn:Ea; [|discriminate].
      inversion H; subst. eapply record_apply_inv; eassumption.
Qed.

Lemma pre_loop_inv co : forall f st bs st' r, ps_inv st -> pre_loop f co st bs = POk (st', r) -> ps_inv st'.
Proof.
  induction f as [|f IH]; intros st bs st' r Hinv H; [discriminate|]. cbn [pre_loop] in H.
  destruct (pre_step co st bs) as [[[st1 r1]|]| |] eqn:Es; cbn [pbind] in H; try discriminate.
  - eapply IH; [|exact H]. eapply pre_step_inv; eassumption.
  - inversion H; subst. exact Hinv.
Qed.

(* ------------------------------------------------------------------ *)
(** ** The variable set of an accepted preamble *)

Lemma strip_trailing_last l : strip_trailing l = [] \/ named (last (strip_trailing l) None) = true.
Proof.
  induction l as [|x l IH]; [left; reflexivity|]. cbn [strip_trailing].
  destruct (strip_trailing l) as [|y r] eqn:E.
  - destruct (named x) eqn:En; [right; exact En|left; reflexivity].
  - right. destruct IH as [IH|IH]; [discriminate|]. exact IH.
Qed.

Lemma strip_trailing_length l : (length (strip_trailing l) <= length l)%nat.
Proof.
  induction l as [|x l IH]; [cbn; lia|]. cbn [strip_trailing].
  destruct (strip_trailing l); [destruct (named x)|]; cbn [length] in *; lia.
Qed.

(** [names.last() != Some(&None)] after the cleanup *)
Lemma cleanup_last l : cleanup l = [] \/ last (cleanup l) None <> None.
Proof.
  unfold cleanup. destruct (strip_trailing_last l) as [E|E]; [left; rewrite E; reflexivity|].
  right. destruct (strip_trailing l) as [|y r] eqn:Es; [discriminate|].
  rewrite <- Es in *. clear Es y r.
  assert (H : forall l0 : vnames, l0 <> [] ->
            last (map (fun o : option vname => match o with Some [] => None | _ => o end) l0) None
            = (fun o : option vname => match o with Some [] => None | _ => o end) (last l0 None)).
  { induction l0 as [|a [|b l1] IH]; intros Hne; [congruence|reflexivity|].
    change (last (a :: b :: l1) None) with (last (b :: l1) None).
    rewrite <- IH by discriminate. reflexivity. }
  destruct (strip_trailing l) as [|y r] eqn:Es; [discriminate|]. rewrite <- Es in *.
  rewrite H by (rewrite Es; discriminate).
  destruct (last (strip_trailing l) None) as [[|c n]|]; cbn in E; try discriminate E. discriminate.
Qed.

Lemma cleanup_length l : (length (cleanup l) <= length l)%nat.
Proof. unfold cleanup. rewrite map_length. apply strip_trailing_length. Qed.

(** what [VarSet::check_valid] asserts, plus "no name for a variable that does not exist" *)
Definition varset_valid (vs : varset) : Prop :=
  (vs_order vs = [] \/ lenN (vs_order vs) = vs_len vs) /\
  (vs_order vs = [] -> vs_tree vs = None) /\
  (vs_names vs = [] \/ last (vs_names vs) None <> None) /\
  lenN (vs_names vs) <= vs_len vs.

(** the linear order is empty, or a permutation of all variables; with a tree it is the
    flattened tree *)
Definition varset_order_ok (vs : varset) : Prop :=
  (vs_order vs = [] \/ Permutation (vs_order vs) (seqN 0 (vs_len vs))) /\
  (forall t, vs_tree vs = Some t -> vs_order vs = flatten t).

Lemma NoDup_bounded_perm (l : list N) n : NoDup l -> (forall v, In v l -> v < n) -> lenN l = n ->
  Permutation l (seqN 0 n).
Proof.
  intros Hnd Hb Hl. apply NoDup_Permutation_bis; [exact Hnd| |].
  - rewrite seqN_length. unfold lenN in Hl. lia.
  - intros v Hv. apply In_seqN. specialize (Hb v Hv). lia.
Qed.

Theorem pre_loop_varset co f bs st r nv :
  pre_loop f co ps_init bs = POk (st, r) -> pre_before st = true -> pre_after st nv = true ->
  varset_valid (varset_of st nv) /\ varset_order_ok (varset_of st nv).
Proof.
  intros Hl Hb Ha. pose proof (pre_loop_inv co f _ _ _ _ ps_inv_init Hl) as Hinv.
  unfold ps_inv, pre_before, pre_after, varset_of, varset_valid, varset_order_ok in *.
  cbn [vs_order vs_len vs_tree vs_names].
  pose proof (cleanup_last (ps_names st)) as Hlast.
  pose proof (cleanup_length (ps_names st)) as Hclen.
  destruct (ps_tree st) as [[t mx]|]; cbn [option_map fst].
  - destruct Hinv as (Ho & P & L). apply andb_true_iff in Ha. destruct Ha as [Ha1 Ha2].
    apply N.eqb_eq in Ha1. apply N.leb_le in Ha2. subst nv. rewrite Ho.
    split; [|split].
    + split; [right; exact L|]. split.
      * intros E. rewrite E in L. unfold lenN in L. cbn [length] in L. lia.
      * split; [exact Hlast|]. unfold lenN in *. lia.
    + right. exact P.
    + intros t0 E. inversion E; subst. reflexivity.
  - destruct Hinv as [Hnd Hin]. apply N.eqb_eq in Hb.
    destruct (ps_order st) as [|o os] eqn:Eo.
    + split; [|split].
      * split; [left; reflexivity|]. split; [reflexivity|]. split; [exact Hlast|].
        unfold lenN in *. cbn [length] in Hb. lia.
      * left; reflexivity.
      * discriminate.
    + rewrite <- Eo in *. apply N.eqb_eq in Ha. subst nv.
      split; [|split].
      * split; [right; reflexivity|]. split; [rewrite Eo; discriminate|]. split; [exact Hlast|].
        unfold lenN in *. lia.
      * right. apply NoDup_bounded_perm; [exact Hnd| |reflexivity].
        intros v Hv. destruct (Hin v Hv) as [H1 _]. lia.
      * discriminate.
Qed.
