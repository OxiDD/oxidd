(** * C18q proofs, part 6: round trip of the variable-order preamble

    [pre_loop_print_vars]: the lines [print_vars vs] (an order tree and / or records, names) of a
    well-formed variable set [vs] are read back by the preamble loop as [vs]: the checks before and
    after the problem line pass and [varset_of] gives [vs] again.  [steps_print_vars]: the same as a run
    of steps with no clause tree read; [pre_step_co] reads a clause tree line behind them (DIMACS, [clause_tree = true]). *)
From Coq Require Import List NArith ZArith Bool Arith Lia Permutation.
From OxiVerif Require Import IO.AigerParse IO.AigerLexProofs IO.AigerSecProofs IO.AigerTotalProofs
  IO.AigerSymProofs IO.DimacsParse IO.DimacsProofs IO.TreeParse IO.TreeProofs IO.PreambleProofs.
Import ListNotations.
Open Scope N_scope.

(* ------------------------------------------------------------------ *)
(** ** Runs of the loop *)

Inductive steps (co : option bool) : pstate -> list N -> pstate -> list N -> Prop :=
| steps_refl st bs : steps co st bs st bs
| steps_step st bs st1 bs1 st2 bs2 :
    pre_step co st bs = POk (Some (st1, bs1)) -> steps co st1 bs1 st2 bs2 -> steps co st bs st2 bs2.

Lemma steps_trans co st bs st1 bs1 st2 bs2 :
  steps co st bs st1 bs1 -> steps co st1 bs1 st2 bs2 -> steps co st bs st2 bs2.
Proof. induction 1; [auto|]. intros H2. econstructor; [eassumption|auto]. Qed.

Lemma steps_one co st bs st1 bs1 : pre_step co st bs = POk (Some (st1, bs1)) -> steps co st bs st1 bs1.
Proof. intros H. econstructor; [exact H|constructor]. Qed.

(** a run that ends in a state where the loop breaks *)
Lemma pre_loop_steps co st bs st' bs' : steps co st bs st' bs' -> pre_step co st' bs' = POk None ->
  forall f, pre_loop f co st bs = PFuel \/ pre_loop f co st bs = POk (st', bs').
Proof.
  induction 1 as [st bs|st bs st1 bs1 st2 bs2 Hs _ IH]; intros He f.
  - destruct f as [|f]; [left; reflexivity|]. right. cbn [pre_loop]. rewrite He. reflexivity.
  - destruct f as [|f]; [left; reflexivity|]. cbn [pre_loop]. rewrite Hs. cbn [pbind]. apply IH. exact He.
Qed.

Lemma pre_loop_run co st bs st' bs' : steps co st bs st' bs' -> pre_step co st' bs' = POk None ->
  pre_loop (S (length bs)) co st bs = POk (st', bs').
Proof.
  intros Hs He. destruct (pre_loop_steps _ _ _ _ _ Hs He (S (length bs))) as [E|E]; [|exact E].
  exfalso. eapply pre_loop_nofuel; [|exact E]. lia.
Qed.

(** the loop breaks in front of anything that does not begin with 'c' *)
Lemma pre_step_break co st bs : starts_with 99 bs = false -> pre_step co st bs = POk None.
Proof.
  intros H. unfold pre_step, c_space1. destruct bs as [|b r]; [reflexivity|].
  cbn [starts_with] in H. cbn [strip_prefix]. rewrite N.eqb_sym, H. reflexivity.
Qed.

(* ------------------------------------------------------------------ *)
(** ** One record line *)

Definition vname_ok (n : vname) : Prop := vname_ok_b n = true.

Lemma vname_ok_facts n : vname_ok n -> n <> [] /\ name_ok n /\ valid_utf8 n = true.
Proof.
  unfold vname_ok, vname_ok_b. rewrite !andb_true_iff. intros [[H1 H2] H3].
  split; [destruct n; [discriminate|discriminate]|]. split; assumption.
Qed.

Lemma c_space1_dec n R : c_space1 ([99; 32] ++ dec n ++ R) = Some (dec n ++ R).
Proof.
  unfold c_space1. cbn [app strip_prefix]. rewrite N.eqb_refl. rewrite space1_32. reflexivity.
Qed.

Lemma tag2_space1_digit a b c R : is_digit c = true -> is_digit a = false -> tag2_space1 a b (c :: R) = None.
Proof.
  intros Hc Ha. unfold tag2_space1. cbn [strip_prefix].
  destruct (N.eqb_spec a c) as [->|]; [congruence|reflexivity].
Qed.

Lemma tag2_space1_dec a b n R : is_digit a = false -> tag2_space1 a b (dec n ++ R) = None.
Proof.
  intros Ha. destruct (dec_head n) as (c & t & E & Hc). rewrite E. cbn [app].
  apply tag2_space1_digit; assumption.
Qed.

Lemma var_order_record_print v (o : option vname) R :
  v + 1 < two64 -> (forall n, o = Some n -> vname_ok n) ->
  var_order_record (dec (v + 1) ++ match o with Some n => 32 :: n | None => [] end ++ nl ++ R)
  = POk ((v + 1, o), R).
Proof.
  intros Hv Ho. unfold var_order_record.
  assert (Hnd : nodigit (match o with Some n => 32 :: n | None => [] end ++ nl ++ R)).
  { destruct o; reflexivity. }
  rewrite p_u64_dec by assumption. cbn [pbind].
  destruct o as [n|].
  - destruct (vname_ok_facts n (Ho n eq_refl)) as (Hne & Hok & _).
    destruct (name_ok_facts n Hok) as (Hnl & Hnosp & _).
    rewrite (not_line_ending_name (32 :: n) R).
    2:{ constructor; [split; discriminate|exact Hnl]. }
    cbn [pbind]. change (line_ending (nl ++ R)) with (POk R : pres (list N)). cbn [pbind].
    unfold trim. cbn [space0 is_sp]. replace ((32 =? 32) || (32 =? 9)) with true by reflexivity.
    rewrite space0_nosp by exact Hnosp. rewrite trim_end_ok by exact Hok.
    destruct n as [|b n']; [congruence|]. reflexivity.
  - cbn [app]. change (not_line_ending (nl ++ R)) with (POk ([], nl ++ R) : pres (list N * list N)).
    cbn [pbind]. change (line_ending (nl ++ R)) with (POk R : pres (list N)). reflexivity.
Qed.

Lemma pre_step_record co st v o R st' :
  v + 1 < two64 -> (forall n, o = Some n -> vname_ok n) ->
  record_apply st (v + 1) o = Some st' ->
  pre_step co st (print_record (v, o) ++ R) = POk (Some (st', R)).
Proof.
  intros Hv Ho Ha. unfold pre_step, print_record. cbn [fst snd]. rewrite <- !app_assoc.
  rewrite c_space1_dec.
  assert (E1 : match co with Some _ => tag2_space1 99 111 (dec (v + 1) ++ match o with Some n => 32 :: n | None => [] end ++ nl ++ R) | None => None end = None).
  { destruct co; [apply tag2_space1_dec; reflexivity|reflexivity]. }
  rewrite E1. rewrite tag2_space1_dec by reflexivity.
  rewrite var_order_record_print by assumption. rewrite Ha. reflexivity.
Qed.

(* ------------------------------------------------------------------ *)
(** ** A block of record lines *)

Definition mark (o : option vname) : option vname := Some (match o with Some n => n | None => [] end).

(** the names vector after a record *)
Definition rec_names (nm : vnames) (r : N * option vname) : vnames :=
  upd (nm ++ repeat None (N.to_nat (fst r + 1 - lenN nm))) (N.to_nat (fst r)) (mark (snd r)).

Lemma bytes_eqb_eq a : forall b, bytes_eqb a b = true <-> a = b.
Proof.
  induction a as [|x a IH]; intros [|y b]; cbn [bytes_eqb]; try (split; [discriminate|congruence]).
  - split; reflexivity.
  - rewrite andb_true_iff, N.eqb_eq, IH. split; [intros [-> ->]; reflexivity|intros E; inversion E; auto].
Qed.

Lemma name_taken_iff nm n : name_taken nm n = true <-> In (Some n) nm.
Proof.
  unfold name_taken. rewrite existsb_exists. split.
  - intros ([x|] & Hx & E); [|discriminate]. apply bytes_eqb_eq in E. subst. exact Hx.
  - intros H. exists (Some n). split; [exact H|apply bytes_eqb_eq; reflexivity].
Qed.

Lemma In_upd {A} : forall (l : list A) i x y, In y (upd l i x) -> In y l \/ y = x.
Proof.
  induction l as [|z l IH]; intros i x y H; [destruct H|].
  destruct i as [|i]; cbn [upd] in H; destruct H as [H|H]; subst; auto.
  - left; right; exact H.
  - left; left; reflexivity.
  - destruct (IH _ _ _ H); [left; right; assumption|right; assumption].
Qed.

Lemma In_app_repeat_None {A} (l : list (option A)) k y : In y (l ++ repeat None k) -> In y l \/ y = None.
Proof.
  intros H. apply in_app_or in H. destruct H as [H|H]; [left; exact H|right]. apply repeat_spec in H. exact H.
Qed.

Lemma record_apply_ok st v o :
  v + 1 <= max_capacity ->
  nth (N.to_nat v) (ps_names st) None = None ->
  (forall n, o = Some n -> valid_utf8 n = true /\ ~ In (Some n) (ps_names st)) ->
  record_apply st (v + 1) o
  = Some (mkPS (rec_names (ps_names st) (v, o))
               (match ps_tree st with None => ps_order st ++ [v] | Some _ => ps_order st end)
               (ps_tree st) (ps_ctree st)).
Proof.
  intros Hv Hslot Ho. unfold record_apply.
  destruct (N.eqb_spec (v + 1) 0) as [|Hv0]; [lia|]. destruct (N.ltb_spec max_capacity (v + 1)) as [|Hv1]; [lia|].
  replace (v + 1 - 1) with v by lia.
  set (nm := ps_names st) in *.
  assert (Hg : grow_names nm (v + 1) = Some (nm ++ repeat None (N.to_nat (v + 1 - lenN nm)))).
  { unfold grow_names. destruct (N.ltb_spec (lenN nm) (v + 1)) as [|Hge]; [reflexivity|].
    replace (v + 1 - 1) with v by lia. rewrite Hslot.
    replace (v + 1 - lenN nm) with 0 by lia. cbn [repeat]. rewrite app_nil_r. reflexivity. }
  rewrite Hg.
  assert (He : name_entry (nm ++ repeat None (N.to_nat (v + 1 - lenN nm))) o
               = Some (match o with Some n => n | None => [] end)).
  { unfold name_entry. destruct o as [n|]; [|reflexivity]. destruct (Ho n eq_refl) as [Hu Hn]. rewrite Hu.
    destruct (name_taken (nm ++ repeat None (N.to_nat (v + 1 - lenN nm))) n) eqn:Et; [|reflexivity].
    apply name_taken_iff in Et. apply In_app_repeat_None in Et. destruct Et as [Et|Et]; [contradiction|discriminate]. }
  rewrite He. reflexivity.
Qed.

Lemma rec_names_nth nm r i :
  nth i (rec_names nm r) None = if Nat.eqb i (N.to_nat (fst r)) then mark (snd r) else nth i nm None.
Proof.
  unfold rec_names. rewrite nth_upd, nth_app_repeat_None.
  destruct (Nat.eqb_spec i (N.to_nat (fst r))) as [->|]; [|reflexivity]. cbn [andb].
  destruct (Nat.ltb_spec (N.to_nat (fst r)) (length (nm ++ repeat None (N.to_nat (fst r + 1 - lenN nm)))))
    as [|Hge]; [reflexivity|].
  rewrite app_length, repeat_length in Hge. unfold lenN in Hge. lia.
Qed.

Lemma rec_names_len nm r : lenN (rec_names nm r) = N.max (lenN nm) (fst r + 1).
Proof. unfold rec_names. rewrite lenN_upd, lenN_app, lenN_repeat. lia. Qed.

Lemma rec_names_In nm r y : In y (rec_names nm r) -> In y nm \/ y = None \/ y = mark (snd r).
Proof.
  unfold rec_names. intros H. apply In_upd in H. destruct H as [H|H]; [|auto].
  apply In_app_repeat_None in H. tauto.
Qed.

(** names of the records, in order *)
Definition rnames (recs : list (N * option vname)) : list vname :=
  flat_map (fun r => match snd r with Some n => [n] | None => [] end) recs.

Definition ord_after (tr : option (tree * N)) (ord : list N) (recs : list (N * option vname)) : list N :=
  match tr with None => ord ++ map fst recs | Some _ => ord end.

Lemma records_run co tr ct : forall recs nm ord R,
  NoDup (map fst recs) -> NoDup (rnames recs) ->
  (forall r, In r recs -> fst r + 1 <= max_capacity /\ nth (N.to_nat (fst r)) nm None = None /\
                          (forall n, snd r = Some n -> vname_ok n /\ ~ In (Some n) nm)) ->
  steps co (mkPS nm ord tr ct) (flat_map print_record recs ++ R)
           (mkPS (fold_left rec_names recs nm) (ord_after tr ord recs) tr ct) R.
Proof.
  induction recs as [|[v o] recs IH]; intros nm ord R Hk Hn Hall.
  - cbn [flat_map app fold_left]. replace (ord_after tr ord []) with ord; [constructor|].
    unfold ord_after. destruct tr; [reflexivity|]. cbn [map]. rewrite app_nil_r. reflexivity.
  - cbn [flat_map fold_left]. rewrite <- app_assoc.
    destruct (Hall (v, o) (or_introl eq_refl)) as (Hv & Hslot & Ho). cbn [fst snd] in *.
    econstructor.
    + apply pre_step_record.
      * unfold max_capacity, two64 in *. lia.
      * intros n E. apply (Ho n E).
      * apply record_apply_ok; cbn [ps_names]; [exact Hv|exact Hslot|].
        intros n E. destruct (Ho n E) as [Hok Hnot]. split; [apply vname_ok_facts; exact Hok|exact Hnot].
    + cbn [ps_names ps_order ps_tree ps_ctree].
      cbn [map] in Hk. inversion Hk as [|? ? Hv1 Hk1]; subst.
      assert (Hn1 : NoDup (rnames recs) /\ forall n, o = Some n -> ~ In n (rnames recs)).
      { unfold rnames in *. cbn [flat_map snd] in Hn. destruct o as [n|].
        - cbn [app] in Hn. inversion Hn; subst. split; [assumption|]. intros n' E; inversion E; subst. assumption.
        - split; [exact Hn|discriminate]. }
      destruct Hn1 as [Hn1 Hfresh].
      replace (ord_after tr ord ((v, o) :: recs))
        with (ord_after tr (match tr with None => ord ++ [v] | Some _ => ord end) recs).
      2:{ unfold ord_after. destruct tr; [reflexivity|]. cbn [map fst]. rewrite <- app_assoc. reflexivity. }
      apply IH; [exact Hk1|exact Hn1|].
      intros r Hr. destruct (Hall r (or_intror Hr)) as (Hrv & Hrslot & Hro).
      split; [exact Hrv|]. split.
      * rewrite rec_names_nth. cbn [fst snd].
        destruct (Nat.eqb_spec (N.to_nat (fst r)) (N.to_nat v)) as [E|]; [|exact Hrslot].
        exfalso. apply Hv1. apply in_map_iff. exists r. split; [lia|exact Hr].
      * intros n E. destruct (Hro n E) as [Hok Hnot]. split; [exact Hok|].
        intros Hin. apply rec_names_In in Hin. cbn [snd] in Hin.
        destruct Hin as [Hin|[Hin|Hin]]; [contradiction|discriminate|].
        unfold mark in Hin. inversion Hin as [E2]. destruct o as [n0|].
        -- subst n0. apply (Hfresh n eq_refl). unfold rnames. apply in_flat_map. exists r.
           split; [exact Hr|]. rewrite E. left. reflexivity.
        -- subst n. destruct (vname_ok_facts _ Hok) as [Hne _]. congruence.
Qed.

(** the names vector after all records, by position *)
Lemma fold_rec_names_nth : forall recs nm i, NoDup (map fst recs) ->
  nth i (fold_left rec_names recs nm) None =
  match find (fun r => Nat.eqb i (N.to_nat (fst r))) recs with
  | Some r => mark (snd r)
  | None => nth i nm None
  end.
Proof.
  induction recs as [|r recs IH]; intros nm i Hk; [reflexivity|].
  cbn [fold_left find map] in *. inversion Hk as [|? ? Hr Hk1]; subst. rewrite IH by exact Hk1.
  destruct (Nat.eqb_spec i (N.to_nat (fst r))) as [E2|E2].
  - destruct (find (fun r0 => Nat.eqb i (N.to_nat (fst r0))) recs) as [r1|] eqn:Ef.
    + apply find_some in Ef. destruct Ef as [Hin E]. apply Nat.eqb_eq in E.
      exfalso. apply Hr. apply in_map_iff. exists r1. split; [lia|exact Hin].
    + rewrite rec_names_nth. rewrite E2, Nat.eqb_refl. reflexivity.
  - destruct (find (fun r0 => Nat.eqb i (N.to_nat (fst r0))) recs) as [r1|] eqn:Ef; [reflexivity|].
    rewrite rec_names_nth. destruct (Nat.eqb_spec i (N.to_nat (fst r))); [contradiction|reflexivity].
Qed.

Lemma fold_rec_names_len : forall recs nm,
  lenN (fold_left rec_names recs nm) = N.max (lenN nm) (list_maxN (map (fun r => fst r + 1) recs)).
Proof.
  induction recs as [|r recs IH]; intros nm; cbn [fold_left map list_maxN]; [lia|].
  rewrite IH, rec_names_len. lia.
Qed.

(* ------------------------------------------------------------------ *)
(** ** The final names vector and its cleanup *)

Lemma list_maxN_succ_bound (keys : list N) M :
  (forall i, i < M <-> In i keys) -> list_maxN (map (fun k => k + 1) keys) = M.
Proof.
  intros H. destruct (N.eq_dec M 0) as [->|HM].
  - destruct keys as [|k keys]; [reflexivity|]. exfalso. specialize (proj2 (H k) (or_introl eq_refl)). lia.
  - apply N.le_antisymm.
    + assert (Hb : forall l, (forall k, In k l -> k < M) -> list_maxN (map (fun k => k + 1) l) <= M).
      { induction l as [|k l IH]; intros Hl; cbn [map list_maxN]; [lia|].
        specialize (IH (fun k0 Hk0 => Hl k0 (or_intror Hk0))). specialize (Hl k (or_introl eq_refl)). lia. }
      apply Hb. intros k Hk. apply H. exact Hk.
    + assert (Hin : In (M - 1 + 1) (map (fun k => k + 1) keys)).
      { apply in_map_iff. exists (M - 1). split; [reflexivity|]. apply H. lia. }
      apply list_maxN_ge in Hin. lia.
Qed.

Lemma fold_rec_names_len_cov recs M : (forall i, i < M <-> In i (map fst recs)) ->
  lenN (fold_left rec_names recs []) = M.
Proof.
  intros Hcov. rewrite fold_rec_names_len, <- (map_map fst (fun k => k + 1)).
  rewrite (list_maxN_succ_bound _ M Hcov). apply N.max_r, N.le_0_l.
Qed.

Lemma fold_final recs (names : vnames) M :
  NoDup (map fst recs) -> (forall i, i < M <-> In i (map fst recs)) ->
  (forall r, In r recs -> snd r = nth (N.to_nat (fst r)) names None) -> lenN names <= M ->
  fold_left rec_names recs [] = map mark (names ++ repeat None (N.to_nat (M - lenN names))).
Proof.
  intros Hk Hcov Hsnd Hlen.
  pose proof (fold_rec_names_len_cov recs M Hcov) as HL.
  assert (HR : lenN (map mark (names ++ repeat None (N.to_nat (M - lenN names)))) = M).
  { rewrite lenN_map, lenN_app, lenN_repeat. lia. }
  apply nth_ext with (d := None) (d' := None); [unfold lenN in *; lia|].
  intros i Hi. rewrite fold_rec_names_nth by exact Hk.
  assert (HiM : N.of_nat i < M) by (unfold lenN in HL; lia).
  destruct (find (fun r => Nat.eqb i (N.to_nat (fst r))) recs) as [r|] eqn:Ef.
  - apply find_some in Ef. destruct Ef as [Hin E]. apply Nat.eqb_eq in E.
    rewrite (Hsnd r Hin).
    assert (Hi2 : (N.to_nat (fst r) < length (map mark (names ++ repeat None (N.to_nat (M - lenN names)))))%nat).
    { unfold lenN in *. rewrite <- E. lia. }
    rewrite E.
    rewrite (nth_indep (map mark (names ++ repeat None (N.to_nat (M - lenN names)))) None (mark None)) by exact Hi2.
    rewrite map_nth, nth_app_repeat_None. reflexivity.
  - exfalso. apply (proj1 (Hcov _)) in HiM. apply in_map_iff in HiM. destruct HiM as (r & E & Hin).
    pose proof (find_none _ _ Ef r Hin) as Hn. cbn beta in Hn. apply Nat.eqb_neq in Hn. lia.
Qed.

Lemma strip_trailing_app_unnamed (a b : vnames) : forallb (fun o => negb (named o)) b = true ->
  strip_trailing (a ++ b) = strip_trailing a.
Proof.
  intros Hb. assert (Hs : strip_trailing b = []).
  { induction b as [|x b IH]; [reflexivity|]. cbn [forallb] in Hb. apply andb_true_iff in Hb.
    destruct Hb as [Hx Hb]. cbn [strip_trailing]. rewrite (IH Hb). apply negb_true_iff in Hx. rewrite Hx. reflexivity. }
  induction a as [|x a IH]; [exact Hs|]. cbn [app strip_trailing]. rewrite IH. reflexivity.
Qed.

Lemma strip_trailing_id (l : vnames) : (l = [] \/ named (last l None) = true) -> strip_trailing l = l.
Proof.
  induction l as [|x l IH]; intros H; [reflexivity|]. destruct H as [H|H]; [discriminate|].
  cbn [strip_trailing]. destruct l as [|y l'].
  - cbn in *. rewrite H. reflexivity.
  - rewrite IH by (right; exact H). reflexivity.
Qed.

(** what the cleanup makes of the final names vector *)
Lemma cleanup_mark (names : vnames) k :
  Forall (fun o => forall n, o = Some n -> n <> []) names ->
  (names = [] \/ exists n, last names None = Some n) ->
  cleanup (map mark (names ++ repeat None k)) = names.
Proof.
  intros Hne Hlast. unfold cleanup. rewrite map_app.
  rewrite strip_trailing_app_unnamed.
  2:{ apply forallb_forall. intros o Ho. apply in_map_iff in Ho. destruct Ho as (x & <- & Hx).
      apply repeat_spec in Hx. subst x. reflexivity. }
  rewrite strip_trailing_id.
  - rewrite map_map. rewrite <- (map_id names) at 2. apply map_ext_in. intros o Ho.
    rewrite Forall_forall in Hne. specialize (Hne o Ho). destruct o as [[|b n]|]; try reflexivity.
    exfalso. apply (Hne [] eq_refl). reflexivity.
  - destruct Hlast as [->|[n Hn]]; [left; reflexivity|]. right.
    assert (Hnn : names <> []) by (intros ->; discriminate).
    assert (Hl : last (map mark names) None = mark (last names None)).
    { clear -Hnn. induction names as [|a [|b l] IH]; [congruence|reflexivity|].
      change (last (a :: b :: l) None) with (last (b :: l) None). rewrite <- IH by discriminate. reflexivity. }
    rewrite Hl, Hn. cbn. rewrite Forall_forall in Hne.
    assert (Hin : In (Some n) names).
    { rewrite <- Hn. destruct (exists_last Hnn) as (l' & a & ->). rewrite last_last. apply in_or_app. right. left. reflexivity. }
    specialize (Hne _ Hin n eq_refl). destruct n; [congruence|reflexivity].
Qed.

(* ------------------------------------------------------------------ *)
(** ** The tree lines *)

Lemma tag2_space1_tree a b ob t R :
  tag2_space1 a b (a :: b :: 32 :: print_tree ob t ++ R) = Some (print_tree ob t ++ R).
Proof.
  unfold tag2_space1. cbn [strip_prefix]. rewrite !N.eqb_refl. cbn [space1 is_sp].
  replace ((32 =? 32) || (32 =? 9)) with true by reflexivity.
  rewrite (tree_start_nosp _ (print_tree_start ob t R)). reflexivity.
Qed.

Lemma pre_step_vo co st t R :
  ps_tree st = None -> tree_top_ok_b true true t = true ->
  pre_step co st ([99; 32; 118; 111; 32] ++ print_tree true t ++ nl ++ R)
  = POk (Some (mkPS (ps_names st) (flatten t) (Some (t, list_maxN (flatten t))) (ps_ctree st), R)).
Proof.
  intros Ht Hok. unfold pre_step.
  assert (E0 : forall x, c_space1 ([99; 32; 118; 111; 32] ++ x) = Some (118 :: 111 :: 32 :: x)) by reflexivity.
  rewrite E0.
  assert (E1 : forall x, match co with Some _ => tag2_space1 99 111 (118 :: x) | None => None end = None)
    by (destruct co; reflexivity).
  rewrite E1, tag2_space1_tree, Ht, p_tree_print by (try exact Hok; reflexivity). cbn [pbind].
  change (eol (nl ++ R)) with (POk R : pres (list N)). reflexivity.
Qed.

Lemma pre_step_co st t R :
  ps_ctree st = None -> tree_top_ok_b false false t = true ->
  pre_step (Some true) st (print_ctree t ++ R)
  = POk (Some (mkPS (ps_names st) (ps_order st) (ps_tree st) (Some (t, list_maxN (flatten t))), R)).
Proof.
  intros Ht Hok. unfold pre_step, print_ctree. rewrite <- !app_assoc.
  assert (E0 : forall x, c_space1 ([99; 32; 99; 111; 32] ++ x) = Some (99 :: 111 :: 32 :: x)) by reflexivity.
  rewrite E0.
  rewrite tag2_space1_tree, Ht, p_tree_print by (try exact Hok; reflexivity). cbn [pbind].
  change (eol (nl ++ R)) with (POk R : pres (list N)). reflexivity.
Qed.

(** a clause-tree line is skipped when the option is off *)
Lemma skip_line_print : forall s R, Forall (fun b => b <> 10) s -> skip_line (s ++ nl ++ R) = R.
Proof.
  induction s as [|b s IH]; intros R H; [reflexivity|]. inversion H; subst. cbn [app skip_line].
  destruct (N.eqb_spec b 10); [contradiction|]. apply IH. assumption.
Qed.

(* ------------------------------------------------------------------ *)
(** ** Well-formed variable sets *)

Lemma listN_eqb_eq : forall a b, listN_eqb a b = true -> a = b.
Proof.
  induction a as [|x a IH]; intros [|y b] H; cbn [listN_eqb] in H; try discriminate; [reflexivity|].
  apply andb_true_iff in H. destruct H as [H1 H2]. apply N.eqb_eq in H1. subst. f_equal. apply IH. exact H2.
Qed.

Lemma names_distinct_NoDup : forall l, names_distinct_b l = true ->
  NoDup (flat_map (fun o : option vname => match o with Some n => [n] | None => [] end) l).
Proof.
  induction l as [|[n|] l IH]; intros H; cbn [names_distinct_b flat_map] in *; [constructor| |apply IH; exact H].
  apply andb_true_iff in H. destruct H as [H1 H2]. cbn [app]. constructor; [|apply IH; exact H2].
  apply negb_true_iff in H1. intros Hin. apply in_flat_map in Hin. destruct Hin as ([m|] & Hm & Hn); [|destruct Hn].
  destruct Hn as [<-|[]]. assert (name_taken l m = true) by (apply name_taken_iff; exact Hm). congruence.
Qed.

Lemma index_from_spec {A} (d : A) : forall (l : list A) i,
  NoDup (map fst (index_from i l)) /\
  (forall k, In k (map fst (index_from i l)) <-> i <= k < i + lenN l) /\
  (forall r, In r (index_from i l) -> snd r = nth (N.to_nat (fst r - i)) l d /\ In (snd r) l).
Proof.
  induction l as [|x l IH]; intros i.
  - cbn. split; [constructor|]. split; [intros k; unfold lenN; cbn [length]; split; [tauto|lia]|intros r []].
  - destruct (IH (i + 1)) as (H1 & H2 & H3). cbn [index_from map fst]. rewrite lenN_cons. split; [|split].
    + constructor; [|exact H1]. intros Hin. apply H2 in Hin. lia.
    + intros k. cbn [In]. rewrite H2. lia.
    + intros r [<-|Hr].
      * cbn [fst snd]. replace (i - i) with 0 by lia. split; [reflexivity|left; reflexivity].
      * destruct (H3 r Hr) as [E Hin]. split; [|right; exact Hin].
        assert (Hge : i + 1 <= fst r).
        { apply (proj1 (H2 (fst r))). apply in_map. exact Hr. }
        rewrite E. replace (N.to_nat (fst r - i)) with (S (N.to_nat (fst r - (i + 1)))) by lia. reflexivity.
Qed.

Lemma index_from_rnames : forall (l : vnames) i,
  rnames (index_from i l) = flat_map (fun o : option vname => match o with Some n => [n] | None => [] end) l.
Proof.
  induction l as [|x l IH]; intros i; [reflexivity|]. unfold rnames in *. cbn [index_from flat_map snd].
  rewrite IH. reflexivity.
Qed.

Lemma nth_Some_In {A} (l : list (option A)) i x : nth i l None = Some x -> In (Some x) l.
Proof.
  intros E. rewrite <- E. apply nth_In. destruct (Nat.lt_ge_cases i (length l)); [assumption|].
  rewrite nth_overflow in E by assumption. discriminate.
Qed.

Lemma names_distinct_pos : forall (l : vnames) i j n, names_distinct_b l = true ->
  nth i l None = Some n -> nth j l None = Some n -> i = j.
Proof.
  induction l as [|x l IH]; intros i j n Hd Hi Hj; [destruct i; discriminate|].
  assert (Htl : names_distinct_b l = true).
  { destruct x; cbn [names_distinct_b] in Hd; [apply andb_true_iff in Hd; tauto|exact Hd]. }
  assert (Hhead : forall k, x = Some n -> nth k l None = Some n -> False).
  { intros k -> Hk. cbn [names_distinct_b] in Hd. apply andb_true_iff in Hd. destruct Hd as [Hd _].
    apply negb_true_iff in Hd. assert (name_taken l n = true); [|congruence].
    apply name_taken_iff. exact (nth_Some_In _ _ _ Hk). }
  destruct i as [|i], j as [|j]; cbn [nth] in *; [reflexivity| | |f_equal; eapply IH; eassumption].
  - exfalso. eapply Hhead; eassumption.
  - exfalso. eapply Hhead; eassumption.
Qed.

Lemma nth_nil_None {A} i : nth i (@nil (option A)) None = None.
Proof. destruct i; reflexivity. Qed.

Record wf_facts (vs : varset) : Prop := {
  wf_cap : vs_len vs <= max_capacity;
  wf_nm : forall n, In (Some n) (vs_names vs) -> vname_ok n;
  wf_dist : names_distinct_b (vs_names vs) = true;
  wf_last : vs_names vs = [] \/ exists n, last (vs_names vs) None = Some n;
  wf_nlen : lenN (vs_names vs) <= vs_len vs }.

Lemma wf_vars_facts vs : wf_vars_b vs = true -> wf_facts vs.
Proof.
  unfold wf_vars_b. rewrite !andb_true_iff. intros (((((H1 & H2) & H3) & H4) & H5) & _).
  constructor.
  - apply N.leb_le. exact H1.
  - intros n Hn. rewrite forallb_forall in H2. exact (H2 _ Hn).
  - exact H3.
  - destruct (vs_names vs) as [|x l] eqn:E; [left; reflexivity|]. right.
    destruct (last (x :: l) None) as [n|]; [exists n; reflexivity|discriminate].
  - apply N.leb_le. exact H5.
Qed.

Lemma records_varset co tr ord recs (names : vnames) M R :
  M <= max_capacity -> lenN names <= M ->
  (forall n, In (Some n) names -> vname_ok n) ->
  (names = [] \/ exists n, last names None = Some n) ->
  NoDup (map fst recs) -> NoDup (rnames recs) ->
  (forall i, i < M <-> In i (map fst recs)) ->
  (forall r, In r recs -> snd r = nth (N.to_nat (fst r)) names None) ->
  exists nm, steps co (mkPS [] ord tr None) (flat_map print_record recs ++ R)
                   (mkPS nm (ord_after tr ord recs) tr None) R
             /\ lenN nm = M /\ cleanup nm = names.
Proof.
  intros Hcap Hlen Wnm Wlast Hk Hrn Hcov Hval. exists (fold_left rec_names recs []). split; [|split].
  - apply records_run; [exact Hk|exact Hrn|]. intros r Hr.
    assert (Hlt : fst r < M) by (apply Hcov, in_map, Hr).
    split; [lia|]. split; [apply nth_nil_None|]. intros n En. split; [|intros []].
    apply Wnm. rewrite (Hval r Hr) in En. exact (nth_Some_In _ _ _ En).
  - apply fold_rec_names_len_cov. exact Hcov.
  - rewrite (fold_final recs names M) by assumption. apply cleanup_mark; [|exact Wlast].
    apply Forall_forall. intros o Ho n ->. apply (vname_ok_facts n (Wnm n Ho)).
Qed.

(** the lines of a well-formed variable set are read back as the variable set *)
Theorem steps_print_vars co vs R : wf_vars_b vs = true ->
  exists st, steps co ps_init (print_vars vs ++ R) st R /\
             pre_before st = true /\ pre_after st (vs_len vs) = true /\
             varset_of st (vs_len vs) = vs /\ ps_ctree st = None.
Proof.
  intros Hwf. pose proof (wf_vars_facts vs Hwf) as W.
  unfold wf_vars_b in Hwf. apply andb_true_iff in Hwf. destruct Hwf as [_ Hcase].
  destruct vs as [len order otree names]. cbn [vs_len vs_order vs_tree vs_names] in *.
  unfold print_vars, var_records. cbn [vs_tree vs_names vs_order].
  destruct W as [Wcap Wnm Wdist Wlast Wnlen]. cbn [vs_len vs_names] in *.
  destruct otree as [t|].
  - (* order tree *)
    apply andb_true_iff in Hcase. destruct Hcase as [Hcase Hlen]. apply andb_true_iff in Hcase.
    destruct Hcase as [Htok Hord]. apply listN_eqb_eq in Hord. apply N.eqb_eq in Hlen. subst order.
    destruct (index_from_spec None names 0) as (K1 & K2 & K3).
    destruct (records_varset co (Some (t, list_maxN (flatten t))) (flatten t) (index_from 0 names)
                             names (lenN names) R) as (nm & Hs & Hl & Hc);
      [lia|lia|exact Wnm|exact Wlast|exact K1| | | |].
    { rewrite index_from_rnames. apply names_distinct_NoDup. exact Wdist. }
    { intros i. rewrite K2. lia. }
    { intros r Hr. destruct (K3 r Hr) as [E _]. rewrite E. f_equal. lia. }
    eexists. split; [|split; [|split; [|split]]].
    + rewrite <- !app_assoc. eapply steps_trans; [|exact Hs].
      apply steps_one. apply (pre_step_vo co ps_init t); [reflexivity|exact Htok].
    + reflexivity.
    + unfold pre_after. cbn [ps_tree ps_names]. rewrite Hl. apply andb_true_iff.
      split; [apply N.eqb_eq; exact Hlen|apply N.leb_le; exact Wnlen].
    + unfold varset_of. cbn [ps_order ps_tree ps_names option_map fst ord_after]. rewrite Hc. reflexivity.
    + reflexivity.
  - destruct order as [|o0 order'] eqn:Eo.
    + (* no order at all *)
      destruct names; [|discriminate]. exists ps_init. cbn [map flat_map app].
      split; [constructor|]. repeat split.
    + (* linear order *)
      rewrite <- Eo in *. apply andb_true_iff in Hcase. destruct Hcase as [Hcase Hbound].
      apply andb_true_iff in Hcase. destruct Hcase as [Hlen Hnd]. apply N.eqb_eq in Hlen.
      apply nodupN_b_spec in Hnd. rewrite forallb_forall in Hbound.
      assert (Hcov : forall i, i < len <-> In i order).
      { intros i. split.
        - intros Hi. assert (Hincl : incl (seqN 0 len) order).
          { apply NoDup_length_incl; [exact Hnd|rewrite seqN_length; unfold lenN in Hlen; lia|].
            intros v Hv. apply In_seqN. specialize (Hbound v Hv). apply N.ltb_lt in Hbound. lia. }
          apply Hincl. apply In_seqN. lia.
        - intros Hi. specialize (Hbound i Hi). apply N.ltb_lt in Hbound. exact Hbound. }
      set (recs := map (fun v => (v, nth (N.to_nat v) names None)) order).
      assert (Hkeys : map fst recs = order).
      { unfold recs. rewrite map_map. cbn [fst]. apply map_id. }
      assert (Hrn : NoDup (rnames recs)).
      { unfold recs. clear -Hnd Wdist. induction order as [|v order IH]; [constructor|].
        inversion Hnd as [|? ? Hv Hnd']; subst. unfold rnames in *. cbn [map flat_map snd].
        destruct (nth (N.to_nat v) names None) as [n|] eqn:En; [|apply IH; exact Hnd'].
        cbn [app]. constructor; [|apply IH; exact Hnd'].
        intros Hin. apply in_flat_map in Hin. destruct Hin as (r & Hr & Hn). apply in_map_iff in Hr.
        destruct Hr as (w & <- & Hw). cbn [snd] in Hn.
        destruct (nth (N.to_nat w) names None) as [m|] eqn:Em; [|destruct Hn]. destruct Hn as [<-|[]].
        pose proof (names_distinct_pos names _ _ _ Wdist En Em). apply Hv. replace v with w by lia. exact Hw. }
      destruct (records_varset co None [] recs names len R) as (nm & Hs & Hl & Hc);
        try assumption; try (rewrite Hkeys; assumption).
      { intros r Hr. apply in_map_iff in Hr. destruct Hr as (v & <- & _). reflexivity. }
      eexists. split; [exact Hs|]. cbn [ord_after app]. rewrite Hkeys. split; [|split; [|split]].
      * unfold pre_before. cbn [ps_tree ps_names ps_order]. apply N.eqb_eq. rewrite Hl, Hlen. reflexivity.
      * unfold pre_after. cbn [ps_tree ps_order]. rewrite Eo. rewrite <- Eo. apply N.eqb_eq. lia.
      * unfold varset_of. cbn [ps_order ps_tree ps_names option_map]. rewrite Hc. reflexivity.
      * reflexivity.
Qed.

(** the same as a statement about [pre_loop] with the fuel the readers give it: in front of
    anything that does not begin with 'c' (the problem line) the loop returns the state that
    stands for [vs] *)
Theorem pre_loop_print_vars co vs R : wf_vars_b vs = true -> starts_with 99 R = false ->
  exists st, pre_loop (S (length (print_vars vs ++ R))) co ps_init (print_vars vs ++ R) = POk (st, R) /\
             pre_before st = true /\ pre_after st (vs_len vs) = true /\ varset_of st (vs_len vs) = vs.
Proof.
  intros Hwf HR. destruct (steps_print_vars co vs R Hwf) as (st & Hs & Hb & Ha & Hv & _).
  exists st. split; [|auto]. apply pre_loop_run; [exact Hs|apply pre_step_break; exact HR].
Qed.
