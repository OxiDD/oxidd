(** * C18q proofs, part 1: the tree reader [util::tree]

    - [ins_complete_spec]: the short cut in [ins_complete] does not change its value
    - [p_tree_total]: never [PFuel] (fuel [2 * length + 1] covers the two mutually recursive
      functions: [rec] consumes a byte per call, the loop calls [rec] on the same input)
    - [p_tree_accept]: what an accepted tree satisfies -- with [unique_leaves] the flattened tree is
      a duplicate-free enumeration (a permutation) of [0 .. max]; without, it covers [0 .. max]
    - [p_tree_print]: round trip [p_tree (print_tree t ++ rest) = POk (t, max, rest)] *)
From Coq Require Import List NArith ZArith Bool Arith Lia Permutation.
From OxiVerif Require Import Base.ListFacts IO.AigerParse IO.AigerLexProofs IO.AigerSecProofs IO.AigerTotalProofs
  IO.DimacsParse IO.TreeParse.
Import ListNotations.
Open Scope N_scope.

Arguments N.max : simpl never.

(* ------------------------------------------------------------------ *)
(** ** Sets as lists *)

Lemma memN_In n l : memN n l = true <-> In n l.
Proof.
  unfold memN. rewrite existsb_exists. split.
  - intros (x & Hx & E). apply N.eqb_eq in E. subst. exact Hx.
  - intros H. exists n. split; [exact H|apply N.eqb_refl].
Qed.

Lemma memN_false n l : memN n l = false <-> ~ In n l.
Proof. rewrite <- memN_In. destruct (memN n l); split; congruence. Qed.

Lemma NoDup_seqN s n : NoDup (seqN s n).
Proof.
  unfold seqN. apply FinFun.Injective_map_NoDup; [|apply seq_NoDup].
  intros a b H. lia.
Qed.

Lemma list_maxN_ge l x : In x l -> x <= list_maxN l.
Proof.
  induction l as [|y l IH]; cbn [list_maxN In]; [tauto|]. intros [->|H]; [lia|].
  specialize (IH H). lia.
Qed.

Lemma list_maxN_In l : l <> [] -> In (list_maxN l) l.
Proof.
  induction l as [|y l IH]; [congruence|]. intros _. cbn [list_maxN].
  destruct l as [|z l'].
  - cbn [list_maxN]. left. lia.
  - assert (H : In (list_maxN (z :: l')) (z :: l')) by (apply IH; congruence).
    destruct (N.max_spec y (list_maxN (z :: l'))) as [[_ E]|[_ E]]; rewrite E; [right; exact H|left; reflexivity].
Qed.

Lemma list_maxN_app a b : list_maxN (a ++ b) = N.max (list_maxN a) (list_maxN b).
Proof. induction a as [|x a IH]; cbn [app list_maxN]; [lia|]. rewrite IH. lia. Qed.

Lemma list_maxN_rev a : list_maxN (rev a) = list_maxN a.
Proof. induction a as [|x a IH]; cbn [rev list_maxN]; [reflexivity|]. rewrite list_maxN_app, IH. cbn [list_maxN]. lia. Qed.

(** the bit set is complete iff every number up to the maximum is in it *)
Lemma ins_complete_spec ins :
  ins_complete ins = forallb (fun i => memN i ins) (seqN 0 (list_maxN ins + 1)).
Proof.
  unfold ins_complete. destruct (N.ltb_spec (lenN ins) (list_maxN ins + 1)) as [Hlt|]; [|reflexivity].
  symmetry. apply not_true_is_false. intros H. rewrite forallb_forall in H.
  assert (Hincl : incl (seqN 0 (list_maxN ins + 1)) ins).
  { intros x Hx. apply memN_In. apply H. exact Hx. }
  pose proof (NoDup_incl_length (NoDup_seqN 0 (list_maxN ins + 1)) Hincl) as Hl.
  rewrite seqN_length in Hl. unfold lenN in Hlt. lia.
Qed.

Lemma ins_complete_iff ins :
  ins_complete ins = true <-> forall i, i <= list_maxN ins -> In i ins.
Proof.
  rewrite ins_complete_spec, forallb_forall. split.
  - intros H i Hi. apply memN_In. apply H. apply In_seqN. lia.
  - intros H i Hi. apply memN_In. apply H. apply In_seqN in Hi. lia.
Qed.

(* ------------------------------------------------------------------ *)
(** ** Consumption and totality *)

Definition tstrict {A} (r : pres (A * list N)) (bs : list N) : Prop :=
  match r with POk (_, r') => (length r' < length bs)%nat | _ => True end.

Lemma starts_with_cons c bs : starts_with c bs = true -> exists r, bs = c :: r.
Proof.
  destruct bs as [|b r]; cbn; [discriminate|]. intros H. apply N.eqb_eq in H. subst. eauto.
Qed.

Lemma strip_prefix_len : forall p bs r, strip_prefix p bs = Some r -> (length r + length p = length bs)%nat.
Proof.
  induction p as [|x p IH]; intros bs r H; cbn in *; [inversion H; lia|].
  destruct bs as [|y bs']; [discriminate|]. destruct (x =? y); [|discriminate].
  apply IH in H. cbn. lia.
Qed.

Lemma strip_prefix_app : forall p r, strip_prefix p (p ++ r) = Some r.
Proof. induction p as [|x p IH]; intros r; cbn; [reflexivity|]. rewrite N.eqb_refl. apply IH. Qed.

(** success consumes input; [PFuel] only when the fuel is [small] for the input *)
Definition tfuel (small : Prop) {A} (r : pres (A * list N)) (bs : list N) : Prop :=
  match r with POk (_, r') => (length r' < length bs)%nat | PErr => True | PFuel => small end.

Lemma ptree_fuel ob uq : forall f,
  (forall ins bs, tfuel (f < 2 * length bs + 1)%nat (ptree_rec f ob uq ins bs) bs) /\
  (forall acc mx ins bs, tfuel (f < 2 * length bs + 2)%nat (ptree_loop f ob uq acc mx ins bs) bs).
Proof.
  induction f as [|f [IHr IHl]]; [split; intros; cbn; lia|]. split.
  - intros ins bs. cbn [ptree_rec].
    pose proof (p_u64_len bs) as Hu. unfold strict in Hu.
    destruct (p_u64 bs) as [[n r]| |]; [| |contradiction].
    + destruct (max_capacity <? n); [exact I|]. destruct (ob && (n =? 0)); [exact I|].
      destruct (uq && memN (if ob then n - 1 else n) ins); [exact I|].
      cbn. pose proof (space0_len r). lia.
    + destruct bs as [|b r]; [exact I|]. destruct (b =? 91); [|exact I].
      specialize (IHl [] 0 ins (space0 r)). unfold tfuel in IHl. pose proof (space0_len r).
      destruct (ptree_loop f ob uq [] 0 ins (space0 r)) as [[[[ch mx] ins'] r']| |];
        cbn [tfuel length]; [lia|exact I|lia].
  - intros acc mx ins bs. cbn [ptree_loop].
    pose proof (space0_len bs) as Hs.
    destruct (starts_with 93 (space0 bs)) eqn:E93.
    + apply starts_with_cons in E93. destruct E93 as [r E]. rewrite E in *. cbn in *. lia.
    + specialize (IHr ins (space0 bs)). unfold tfuel in IHr.
      destruct (ptree_rec f ob uq ins (space0 bs)) as [[[[t smx] ins'] r1]| |];
        cbn [tfuel]; [|exact I|lia].
      pose proof (space0_len r1) as Hs1.
      destruct (starts_with 93 (space0 r1)) eqn:F93.
      * apply starts_with_cons in F93. destruct F93 as [r E]. rewrite E in *. cbn in *. lia.
      * destruct (starts_with 44 (space0 r1)) eqn:F44; [|exact I].
        apply starts_with_cons in F44. destruct F44 as [r E]. rewrite E in *. cbn [tl].
        specialize (IHl (t :: acc) (if mx <=? smx then smx else mx) ins' r). unfold tfuel in IHl.
        destruct (ptree_loop f ob uq (t :: acc) (if mx <=? smx then smx else mx) ins' r)
          as [[[[ch mx2] ins2] r2]| |]; cbn [tfuel length] in *; [lia|exact I|lia].
Qed.

Lemma ptree_rec_len ob uq f ins bs : tstrict (ptree_rec f ob uq ins bs) bs.
Proof.
  pose proof (proj1 (ptree_fuel ob uq f) ins bs) as H.
  destruct (ptree_rec f ob uq ins bs) as [[x r]| |]; [exact H|exact I|exact I].
Qed.
Lemma ptree_loop_len ob uq f acc mx ins bs : tstrict (ptree_loop f ob uq acc mx ins bs) bs.
Proof.
  pose proof (proj2 (ptree_fuel ob uq f) acc mx ins bs) as H.
  destruct (ptree_loop f ob uq acc mx ins bs) as [[x r]| |]; [exact H|exact I|exact I].
Qed.

Theorem p_tree_total ob uq bs : p_tree ob uq bs <> PFuel.
Proof.
  unfold p_tree. pose proof (space0_len bs) as Hs.
  pose proof (proj1 (ptree_fuel ob uq (S (2 * length bs))) [] (space0 bs)) as H.
  destruct (ptree_rec (S (2 * length bs)) ob uq [] (space0 bs)) as [[[[t mx] ins] r]| |]; try discriminate;
    [|cbn [tfuel] in H; lia].
  destruct ins; [discriminate|]. destruct (ins_complete (n :: ins)); discriminate.
Qed.

Lemma p_tree_len ob uq bs : strict (p_tree ob uq bs) bs.
Proof.
  unfold strict. pose proof (p_tree_total ob uq bs) as Ht. unfold p_tree in *.
  pose proof (space0_len bs) as Hs.
  pose proof (ptree_rec_len ob uq (S (2 * length bs)) [] (space0 bs)) as Hl. unfold tstrict in Hl.
  destruct (ptree_rec (S (2 * length bs)) ob uq [] (space0 bs)) as [[[[t mx] ins] r]| |]; try exact I;
    [|congruence].
  destruct ins; [exact I|]. destruct (ins_complete (n :: ins)); [lia|exact I].
Qed.

(* ------------------------------------------------------------------ *)
(** ** What an accepted tree satisfies *)

Lemma max_ite a b : (if a <=? b then b else a) = N.max a b.
Proof. destruct (N.leb_spec a b); lia. Qed.

Lemma flatten_inner l : flatten (TInner l) = flat_map flatten l.
Proof. reflexivity. Qed.

Lemma ptree_inv ob uq : forall f,
  (forall ins bs t mx ins' r, ptree_rec f ob uq ins bs = POk (t, mx, ins', r) ->
     ins' = rev (flatten t) ++ ins /\ mx = list_maxN (flatten t) /\
     (uq = true -> NoDup ins -> NoDup ins')) /\
  (forall acc mx0 ins bs ch mx ins' r, ptree_loop f ob uq acc mx0 ins bs = POk (ch, mx, ins', r) ->
     exists new, ch = rev acc ++ new /\ ins' = rev (flat_map flatten new) ++ ins /\
                 mx = N.max mx0 (list_maxN (flat_map flatten new)) /\
                 (uq = true -> NoDup ins -> NoDup ins')).
Proof.
  induction f as [|f [IHr IHl]]; [split; intros; discriminate|]. split.
  - intros ins bs t mx ins' r H. cbn [ptree_rec] in H.
    pose proof (p_u64_len bs) as Hu.
    destruct (p_u64 bs) as [[n r0]| |] eqn:Eu; [| |destruct Hu].
    + destruct (max_capacity <? n); [discriminate|]. destruct (ob && (n =? 0)); [discriminate|].
      destruct (uq && memN (if ob then n - 1 else n) ins) eqn:Em; [discriminate|].
      inversion H; subst. cbn [flatten rev app list_maxN]. split; [reflexivity|]. split; [lia|].
      intros -> Hnd. cbn [andb] in Em. apply memN_false in Em. constructor; assumption.
    + destruct bs as [|b r1]; [discriminate|]. destruct (b =? 91); [|discriminate].
      destruct (ptree_loop f ob uq [] 0 ins (space0 r1)) as [[[[ch mx1] ins1] r2]| |] eqn:El; try discriminate.
      destruct (IHl _ _ _ _ _ _ _ _ El) as (new & Hch & Hins & Hmx & Hnd).
      cbn [rev app] in Hch. subst ch.
      assert (Hfl : flatten (match new with [t] => t | _ => TInner new end) = flat_map flatten new).
      { destruct new as [|t0 [|t2 new']]; try reflexivity. cbn [flat_map]. rewrite app_nil_r. reflexivity. }
      injection H as Ht Hm Hi Hr. subst t mx ins' r.
      rewrite Hfl. split; [exact Hins|]. split; [rewrite Hmx; lia|exact Hnd].
  - intros acc mx0 ins bs ch mx ins' r H. cbn [ptree_loop] in H.
    destruct (starts_with 93 (space0 bs)).
    + inversion H; subst. exists []. rewrite app_nil_r. cbn. repeat split; [lia|auto].
    + destruct (ptree_rec f ob uq ins (space0 bs)) as [[[[t smx] ins1] r1]| |] eqn:Er; try discriminate.
      destruct (IHr _ _ _ _ _ _ Er) as (Hins1 & Hsmx & Hnd1). rewrite max_ite in H.
      destruct (starts_with 93 (space0 r1)).
      * inversion H; subst. exists [t]. cbn [rev flat_map]. rewrite app_nil_r.
        repeat split; auto.
      * destruct (starts_with 44 (space0 r1)); [|discriminate].
        destruct (IHl _ _ _ _ _ _ _ _ H) as (new & Hch & Hins & Hmx & Hnd).
        exists (t :: new). cbn [rev flat_map] in *. rewrite <- app_assoc in Hch. cbn [app] in Hch.
        split; [exact Hch|]. split.
        { rewrite Hins, Hins1, rev_app_distr, <- app_assoc. reflexivity. }
        split.
        { rewrite Hmx, Hsmx, list_maxN_app. lia. }
        intros Hu Hn. apply Hnd; [exact Hu|]. apply Hnd1; assumption.
Qed.

(** an accepted tree has leaves, its maximum is the maximal leaf, every number up to the
    maximum is a leaf, and with [unique_leaves] no number occurs twice *)
Theorem p_tree_accept ob uq bs t mx r : p_tree ob uq bs = POk (t, mx, r) ->
  flatten t <> [] /\ mx = list_maxN (flatten t) /\
  (forall i, i <= mx <-> In i (flatten t)) /\
  (uq = true -> NoDup (flatten t)).
Proof.
  unfold p_tree. intros H.
  destruct (ptree_rec (S (2 * length bs)) ob uq [] (space0 bs)) as [[[[t1 mx1] ins] r1]| |] eqn:Er; try discriminate.
  destruct (proj1 (ptree_inv ob uq _) _ _ _ _ _ _ Er) as (Hins & Hmx & Hnd).
  rewrite app_nil_r in Hins.
  destruct ins as [|x ins0] eqn:Ei; [discriminate|]. rewrite <- Ei in *.
  destruct (ins_complete ins) eqn:Ec; [|discriminate]. injection H as Ht Hm Hr.
  rewrite Ht, Hm in *. clear Ht Hm t1 mx1.
  assert (Hne : flatten t <> []).
  { intros E. rewrite E in Hins. cbn in Hins. congruence. }
  split; [exact Hne|]. split; [exact Hmx|].
  assert (Hmax : list_maxN ins = list_maxN (flatten t)) by (rewrite Hins; apply list_maxN_rev).
  split.
  - intros i. split.
    + intros Hi. apply in_rev. rewrite <- Hins. apply (proj1 (ins_complete_iff ins) Ec). lia.
    + intros Hi. rewrite Hmx. apply list_maxN_ge. exact Hi.
  - intros Hu. specialize (Hnd Hu (NoDup_nil _)). rewrite Hins in Hnd.
    apply NoDup_rev in Hnd. rewrite rev_involutive in Hnd. exact Hnd.
Qed.

(** with [unique_leaves] the flattened tree is a permutation of [0 .. max] *)
Theorem p_tree_perm ob bs t mx r : p_tree ob true bs = POk (t, mx, r) ->
  Permutation (flatten t) (seqN 0 (mx + 1)) /\ lenN (flatten t) = mx + 1.
Proof.
  intros H. destruct (p_tree_accept _ _ _ _ _ _ H) as (_ & _ & Hin & Hnd).
  assert (P : Permutation (flatten t) (seqN 0 (mx + 1))).
  { apply NoDup_Permutation; [apply Hnd; reflexivity|apply NoDup_seqN|].
    intros i. rewrite <- Hin, In_seqN. lia. }
  split; [exact P|]. unfold lenN. rewrite (Permutation_length P), seqN_length. lia.
Qed.

(* ------------------------------------------------------------------ *)
(** ** Round trip *)

Section tree_ind2.
  Variable P : tree -> Prop.
  Hypothesis Hleaf : forall n, P (TLeaf n).
  Hypothesis Hinner : forall l, Forall P l -> P (TInner l).
  Fixpoint tree_ind2 (t : tree) : P t :=
    match t with
    | TLeaf n => Hleaf n
    | TInner l =>
      Hinner l ((fix go (l : list tree) : Forall P l :=
                   match l with
                   | [] => Forall_nil P
                   | x :: r => Forall_cons x (tree_ind2 x) (go r)
                   end) l)
    end.
End tree_ind2.

Lemma print_tree_inner ob l : print_tree ob (TInner l) = [91] ++ print_trees ob l ++ [93].
Proof.
  cbn [print_tree]. f_equal. f_equal.
  induction l as [|x l IH]; [reflexivity|].
  destruct l as [|y l']; [reflexivity|].
  change (print_trees ob (x :: y :: l')) with (print_tree ob x ++ comma_sp ++ print_trees ob (y :: l')).
  rewrite <- IH. reflexivity.
Qed.

(** the first byte of a printed tree: a digit or '[' *)
Definition tree_start (bs : list N) : Prop :=
  exists c r, bs = c :: r /\ (is_digit c = true \/ c = 91).

Lemma print_tree_start ob t r : tree_start (print_tree ob t ++ r).
Proof.
  destruct t as [n|l].
  - cbn [print_tree]. destruct (dec_head (if ob then n + 1 else n)) as (c & t & E & Hc).
    rewrite E. exists c, (t ++ r). split; [reflexivity|left; exact Hc].
  - rewrite print_tree_inner. exists 91, (print_trees ob l ++ [93] ++ r). split; [|right; reflexivity].
    cbn [app]. rewrite <- app_assoc. reflexivity.
Qed.

Lemma tree_start_nosp bs : tree_start bs -> space0 bs = bs.
Proof.
  intros (c & r & E & [Hc|Hc]); subst bs; [|subst c; reflexivity].
  cbn [space0]. rewrite (digit_not_sp c Hc). reflexivity.
Qed.

Lemma tree_start_not c bs : tree_start bs -> c <> 91 -> is_digit c = false -> starts_with c bs = false.
Proof.
  intros (d & r & E & [Hd|Hd]) Hc Hdc; subst bs; cbn [starts_with]; apply N.eqb_neq; [|congruence].
  intros E. subst d. congruence.
Qed.

Definition okf {A} (r : pres A) (x : A) : Prop := r = PFuel \/ r = POk x.

Lemma p_u64_nodigit_head c r : is_digit c = false -> p_u64 (c :: r) = PErr.
Proof. intros H. unfold p_u64. rewrite H. reflexivity. Qed.

Lemma print_trees_nosp ob l r : space0 (print_trees ob l ++ 93 :: r) = print_trees ob l ++ 93 :: r.
Proof.
  destruct l as [|x [|y l']]; [reflexivity| |]; cbn [print_trees]; [|rewrite <- app_assoc];
    apply tree_start_nosp, print_tree_start.
Qed.

Section TreePrint.
  Variables ob uq : bool.

  Definition rest_ok (rest : list N) : Prop := nodigit rest /\ space0 rest = rest.

  Lemma rest_ok_93 r : rest_ok (93 :: r).
  Proof. split; reflexivity. Qed.
  Lemma rest_ok_44 r : rest_ok (44 :: r).
  Proof. split; reflexivity. Qed.

  (** statement for one tree *)
  Definition rec_ok (t : tree) : Prop :=
    forall f ins rest, rest_ok rest ->
      (uq = true -> NoDup (rev (flatten t) ++ ins)) ->
      okf (ptree_rec f ob uq ins (print_tree ob t ++ rest))
          (t, list_maxN (flatten t), rev (flatten t) ++ ins, rest).

  Lemma loop_print : forall l, Forall rec_ok l -> forallb (tree_ok_b ob) l = true ->
    forall f acc mx ins rest bs, space0 bs = print_trees ob l ++ 93 :: rest ->
      (uq = true -> NoDup (rev (flat_map flatten l) ++ ins)) ->
      okf (ptree_loop f ob uq acc mx ins bs)
          (rev acc ++ l, N.max mx (list_maxN (flat_map flatten l)), rev (flat_map flatten l) ++ ins, rest).
  Proof.
    induction l as [|x l IH]; intros Hall Hok f acc mx ins rest bs Hbs Hnd.
    - destruct f as [|f]; [left; reflexivity|]. right. cbn [ptree_loop]. rewrite Hbs.
      cbn [print_trees app starts_with tl flat_map rev list_maxN]. rewrite N.eqb_refl, app_nil_r.
      f_equal. f_equal. f_equal. f_equal. lia.
    - inversion Hall as [|? ? Hx Hl]; subst. cbn [forallb] in Hok. apply andb_true_iff in Hok.
      destruct Hok as [Hokx Hokl].
      destruct f as [|f]; [left; reflexivity|]. cbn [ptree_loop]. rewrite Hbs.
      set (rest2 := match l with [] => 93 :: rest | _ => comma_sp ++ print_trees ob l ++ 93 :: rest end).
      assert (E : print_trees ob (x :: l) ++ 93 :: rest = print_tree ob x ++ rest2).
      { unfold rest2. destruct l as [|y l']; [reflexivity|].
        cbn [print_trees]. rewrite <- !app_assoc. reflexivity. }
      rewrite E.
      rewrite (tree_start_not 93 _ (print_tree_start ob x rest2)) by (try reflexivity; congruence).
      assert (Hr2 : rest_ok rest2).
      { unfold rest2. destruct l; [apply rest_ok_93|apply rest_ok_44]. }
      cbn [flat_map] in Hnd. rewrite rev_app_distr, <- app_assoc in Hnd.
      destruct (Hx f ins rest2 Hr2) as [Ef|Ef].
      { intros Hu. specialize (Hnd Hu). apply NoDup_app_r in Hnd. exact Hnd. }
      + left. rewrite Ef. reflexivity.
      + rewrite Ef. rewrite max_ite. destruct Hr2 as [_ Hsp]. rewrite Hsp.
        unfold rest2. destruct l as [|y l'].
        * right. cbn [starts_with tl flat_map rev app list_maxN]. rewrite N.eqb_refl.
          rewrite !app_nil_r. reflexivity.
        * cbn [comma_sp app starts_with tl].
          replace (44 =? 93) with false by reflexivity. rewrite N.eqb_refl.
          destruct (IH Hl Hokl f (x :: acc) (N.max mx (list_maxN (flatten x))) (rev (flatten x) ++ ins) rest
                       (32 :: print_trees ob (y :: l') ++ 93 :: rest)) as [Eg|Eg].
          { cbn [space0 is_sp]. replace ((32 =? 32) || (32 =? 9)) with true by reflexivity.
            apply print_trees_nosp. }
          { exact Hnd. }
          -- left. exact Eg.
          -- right. rewrite Eg. cbn [rev flat_map]. rewrite <- !app_assoc. cbn [app].
             f_equal. f_equal. f_equal. f_equal.
             ++ rewrite (list_maxN_app (flatten x)). lia.
             ++ rewrite (rev_app_distr (flatten x)), <- app_assoc. reflexivity.
  Qed.

  Lemma rec_print : forall t, tree_ok_b ob t = true -> rec_ok t.
  Proof.
    induction t as [n|l IH] using tree_ind2; intros Hok; unfold rec_ok; intros f ins rest [Hnd Hsp] Hu.
    - destruct f as [|f]; [left; reflexivity|]. right. cbn [ptree_rec print_tree tree_ok_b] in *.
      apply N.leb_le in Hok.
      set (m := if ob then n + 1 else n).
      assert (Hm : m <= max_capacity) by (unfold m; destruct ob; lia).
      rewrite p_u64_dec by (try exact Hnd; unfold max_capacity, two64 in *; lia).
      destruct (N.ltb_spec max_capacity m); [lia|].
      assert (E0 : ob && (m =? 0) = false).
      { unfold m. destruct ob; [|reflexivity]. cbn [andb]. apply N.eqb_neq. lia. }
      rewrite E0.
      assert (En : (if ob then m - 1 else m) = n) by (unfold m; destruct ob; lia).
      rewrite En. cbn [flatten rev app list_maxN] in *.
      assert (Em : uq && memN n ins = false).
      { destruct uq; [|reflexivity]. cbn [andb]. apply memN_false. specialize (Hu eq_refl).
        inversion Hu; assumption. }
      rewrite Em, Hsp. f_equal. f_equal. f_equal. f_equal. lia.
    - cbn [tree_ok_b] in Hok. apply andb_true_iff in Hok. destruct Hok as [Hlen Hokl].
      destruct f as [|f]; [left; reflexivity|]. rewrite print_tree_inner. cbn [app ptree_rec].
      rewrite p_u64_nodigit_head by reflexivity. replace (91 =? 91) with true by reflexivity.
      assert (Hall : Forall rec_ok l).
      { rewrite forallb_forall in Hokl. rewrite Forall_forall in *. intros x Hx. apply IH; auto. }
      rewrite <- app_assoc. cbn [app].
      destruct (loop_print l Hall Hokl f [] 0 ins rest (space0 (print_trees ob l ++ 93 :: rest))) as [E|E].
      { rewrite !print_trees_nosp. reflexivity. }
      { exact Hu. }
      + left. rewrite E. reflexivity.
      + right. rewrite E. cbn [rev app].
        assert (Hm : match l with [t] => t | _ => TInner l end = TInner l).
        { destruct l as [|x [|y l']]; try reflexivity. discriminate. }
        rewrite Hm. cbn [flatten]. f_equal. f_equal. f_equal. f_equal. lia.
  Qed.
End TreePrint.

Lemma nodupN_b_spec l : nodupN_b l = true <-> NoDup l.
Proof.
  induction l as [|x l IH]; cbn [nodupN_b]; [split; [constructor|reflexivity]|].
  rewrite andb_true_iff, negb_true_iff, memN_false, IH. split.
  - intros [H1 H2]. constructor; assumption.
  - intros H. inversion H; auto.
Qed.

(** round trip of [util::tree]: a printed tree is read back as the same tree with the maximal
    leaf, whatever follows (not a digit, not a blank) *)
Theorem p_tree_print ob uq t rest : tree_top_ok_b ob uq t = true ->
  nodigit rest -> space0 rest = rest ->
  p_tree ob uq (print_tree ob t ++ rest) = POk (t, list_maxN (flatten t), rest).
Proof.
  unfold tree_top_ok_b. rewrite !andb_true_iff. intros (((Hok & Hne) & Hcov) & Hnd) Hr1 Hr2.
  pose proof (p_tree_total ob uq (print_tree ob t ++ rest)) as Htot.
  unfold p_tree in *. rewrite (tree_start_nosp _ (print_tree_start ob t rest)) in *.
  assert (Hu : uq = true -> NoDup (rev (flatten t) ++ [])).
  { intros ->. cbn [negb orb] in Hnd. rewrite app_nil_r. apply NoDup_rev. apply nodupN_b_spec. exact Hnd. }
  destruct (rec_print ob uq t Hok (S (2 * length (print_tree ob t ++ rest))) [] rest (conj Hr1 Hr2) Hu) as [E|E].
  - rewrite E in Htot. congruence.
  - rewrite E. rewrite app_nil_r.
    destruct (rev (flatten t)) as [|x l] eqn:Er.
    { apply (f_equal (@rev N)) in Er. rewrite rev_involutive in Er. rewrite Er in Hne. discriminate. }
    rewrite <- Er.
    assert (Hc : ins_complete (rev (flatten t)) = true).
    { apply ins_complete_iff. rewrite list_maxN_rev. intros i Hi. apply -> in_rev.
      rewrite forallb_forall in Hcov. apply memN_In. apply Hcov. apply In_seqN. lia. }
    rewrite Hc. reflexivity.
Qed.
