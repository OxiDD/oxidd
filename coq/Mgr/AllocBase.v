(** * ALLOC — basic lemmas for the slot allocator model (coq/Mgr/Alloc.v):
      the slot map, [upd], free lists as heap chains ([Chain]), ID ranges, counting. *)

From Coq Require Import List NArith ZArith PArith Bool Arith Lia Permutation FMapPositive.
From OxiVerif Require Import Mgr.Alloc.
Import ListNotations.
Local Open Scope N_scope.

Arguments N.add : simpl never.
Arguments N.sub : simpl never.
Arguments N.mul : simpl never.
Arguments N.div : simpl never.
Arguments N.modulo : simpl never.

(** ** the slot map *)

Lemma key_inj : forall a b, key a = key b -> a = b.
Proof.
  unfold key. intros a b H.
  assert (Npos (N.succ_pos a) = Npos (N.succ_pos b)) as E by (rewrite H; reflexivity).
  rewrite !N.succ_pos_spec in E. lia.
Qed.

Lemma sget_sset_same : forall m id s, sget (sset m id s) id = s.
Proof. intros. unfold sget, sset. rewrite PositiveMap.gss. reflexivity. Qed.

Lemma sget_sset_other : forall m id s j, j <> id -> sget (sset m id s) j = sget m j.
Proof.
  intros. unfold sget, sset. rewrite PositiveMap.gso; [reflexivity|].
  intro E. apply H. apply key_inj. exact E.
Qed.

Lemma sget_empty : forall id, sget (PositiveMap.empty slot) id = SUninit.
Proof. intros. unfold sget. rewrite PositiveMap.gempty. reflexivity. Qed.

(** ** [upd] *)

Lemma upd_length : forall (A : Type) (l : list A) i x, length (upd l i x) = length l.
Proof. induction l; destruct i; simpl; intros; auto. Qed.

Lemma nth_error_upd_same : forall (A : Type) (l : list A) i x y,
  nth_error l i = Some y -> nth_error (upd l i x) i = Some x.
Proof. induction l; destruct i; simpl; intros; try discriminate; eauto. Qed.

Lemma nth_error_upd_other : forall (A : Type) (l : list A) i j x,
  i <> j -> nth_error (upd l i x) j = nth_error l j.
Proof.
  induction l; destruct i; destruct j; simpl; intros; auto; try congruence.
Qed.

Lemma nth_error_split_upd : forall (A : Type) (l : list A) i y,
  nth_error l i = Some y ->
  exists a b, l = a ++ y :: b /\ length a = i /\ forall x, upd l i x = a ++ x :: b.
Proof.
  induction l; destruct i; simpl; intros; try discriminate.
  - inversion H; subst. exists [], l. repeat split; auto.
  - destruct (IHl _ _ H) as (p & q & E & L & U).
    exists (a :: p), q. subst. repeat split; simpl; auto. intros. rewrite U. reflexivity.
Qed.

Lemma upd_same_id : forall (A : Type) (l : list A) i y, nth_error l i = Some y -> upd l i y = l.
Proof. induction l; destruct i; simpl; intros; try discriminate; try congruence. f_equal. auto. Qed.

Lemma Forall_upd : forall (A : Type) (P : A -> Prop) l i x, Forall P l -> P x -> Forall P (upd l i x).
Proof.
  induction l; destruct i; simpl; intros; auto; inversion H; subst; constructor; auto.
Qed.

Lemma Forall2_upd : forall (A B : Type) (P : A -> B -> Prop) l k i x y,
  Forall2 P l k -> P x y -> Forall2 P (upd l i x) (upd k i y).
Proof.
  intros A B P l k i x y H. revert i. induction H; destruct i; simpl; intros; constructor; auto.
Qed.

Lemma Forall2_nth : forall (A B : Type) (P : A -> B -> Prop) l k i x,
  Forall2 P l k -> nth_error l i = Some x -> exists y, nth_error k i = Some y /\ P x y.
Proof.
  intros A B P l k i x H. revert i. induction H; destruct i; simpl; intros; try discriminate.
  - inversion H1; subst. eauto.
  - eauto.
Qed.

Lemma Forall2_nth2 : forall (A B : Type) (P : A -> B -> Prop) l k i y,
  Forall2 P l k -> nth_error k i = Some y -> exists x, nth_error l i = Some x /\ P x y.
Proof.
  intros A B P l k i y H. revert i. induction H; destruct i; simpl; intros; try discriminate.
  - inversion H1; subst. eauto.
  - eauto.
Qed.

Lemma Forall2_app_one : forall (A B : Type) (P : A -> B -> Prop) l k x y,
  Forall2 P l k -> P x y -> Forall2 P (l ++ [x]) (k ++ [y]).
Proof. intros. apply Forall2_app; auto. Qed.

Lemma flat_map_upd_perm : forall (A : Type) (f : A -> list N) (l : list A) i y,
  nth_error l i = Some y ->
  exists R, Permutation (flat_map f l) (f y ++ R) /\
            forall x, Permutation (flat_map f (upd l i x)) (f x ++ R).
Proof.
  intros A f l i y H. destruct (nth_error_split_upd _ _ _ _ H) as (a & b & E & _ & U).
  exists (flat_map f a ++ flat_map f b). split.
  - subst l. rewrite flat_map_app. apply Permutation_app_swap_app.
  - intros x. rewrite U, flat_map_app. apply Permutation_app_swap_app.
Qed.

Lemma in_concat_nth : forall (ls : list (list N)) i x id,
  nth_error ls i = Some x -> In id x -> In id (concat ls).
Proof.
  intros. apply in_concat. exists x. split; auto. eapply nth_error_In; eauto.
Qed.

(** ** free lists in the heap *)

Inductive Chain (m : smap) : N -> list N -> Prop :=
| Chain_nil : Chain m 0 []
| Chain_cons : forall h nx l, h <> 0 -> sget m h = SFree nx -> Chain m nx l -> Chain m h (h :: l).

Lemma Chain_fun : forall m h l, Chain m h l -> forall l', Chain m h l' -> l = l'.
Proof.
  induction 1; intros l' H'; inversion H'; subst; try congruence.
  rewrite H0 in H3. inversion H3; subst. f_equal. auto.
Qed.

Lemma Chain_zero : forall m l, Chain m 0 l -> l = [].
Proof. intros. inversion H; subst; auto. congruence. Qed.

Lemma Chain_frame : forall m h l id s, Chain m h l -> ~ In id l -> Chain (sset m id s) h l.
Proof.
  induction 1; intros; [constructor|]. econstructor; eauto.
  - rewrite sget_sset_other; eauto. intro; subst. apply H2. left; auto.
  - apply IHChain. intro. apply H2. right; auto.
Qed.

Lemma Chain_no_zero : forall m h l, Chain m h l -> ~ In 0 l.
Proof. induction 1; simpl; intuition. Qed.

Lemma Chain_free : forall m h l x, Chain m h l -> In x l -> exists nx, sget m x = SFree nx.
Proof. induction 1; simpl; intros; [contradiction|]. destruct H2; subst; eauto. Qed.

Lemma Chain_push : forall m h l id,
  id <> 0 -> Chain m h l -> ~ In id l -> Chain (sset m id (SFree h)) id (id :: l).
Proof.
  intros. econstructor; eauto.
  - apply sget_sset_same.
  - apply Chain_frame; auto.
Qed.

Lemma Chain_head : forall m h l, Chain m h l -> h <> 0 ->
  exists nx l', sget m h = SFree nx /\ l = h :: l' /\ Chain m nx l'.
Proof. intros. inversion H; subst; [congruence|]. eauto. Qed.

Lemma Chain_nonnil_head : forall m h l, Chain m h l -> h = 0 <-> l = [].
Proof. intros. inversion H; subst; split; intros; auto; congruence. Qed.

(** the executable versions *)
Lemma chainl_of_Chain : forall m h l, Chain m h l ->
  forall n, (length l < n)%nat -> chainl n m h = l /\ chain_ok n m h = true.
Proof.
  induction 1; intros n Hn.
  - destruct n; [lia|]. simpl. split; reflexivity.
  - destruct n; [simpl in Hn; lia|]. simpl.
    destruct (N.eqb_spec h 0); [congruence|]. rewrite H0.
    destruct (IHChain n) as [E1 E2]; [simpl in Hn; lia|]. rewrite E1, E2. split; reflexivity.
Qed.

Lemma Chain_of_chain_ok : forall n m h, chain_ok n m h = true -> Chain m h (chainl n m h).
Proof.
  induction n; simpl; intros; [discriminate|].
  destruct (N.eqb_spec h 0); [subst; constructor|].
  destruct (sget m h) eqn:E; try discriminate.
  econstructor; eauto.
Qed.

(** ** ID ranges *)

Lemma range_ids_length : forall c i n, length (range_ids c i n) = n.
Proof. intros c i n. revert i. induction n; simpl; intros; auto. Qed.

Lemma in_range_ids : forall c n i id,
  In id (range_ids c i n) <-> (i + term c <= id < i + term c + N.of_nat n).
Proof.
  intros c n. induction n; intros i id.
  - simpl. split; [contradiction | lia].
  - cbn [range_ids In]. rewrite IHn. rewrite Nat2N.inj_succ. lia.
Qed.

Lemma range_ids_nodup : forall c n i, NoDup (range_ids c i n).
Proof.
  intros c n. induction n; intros i; cbn [range_ids]; constructor; auto.
  rewrite in_range_ids. lia.
Qed.

Lemma range_ids_app : forall c n k i,
  range_ids c i (n + k) = range_ids c i n ++ range_ids c (i + N.of_nat n) k.
Proof.
  intros c n. induction n; intros k i.
  - simpl. replace (i + 0) with i by lia. reflexivity.
  - cbn [range_ids plus app]. rewrite IHn. f_equal. f_equal. f_equal. lia.
Qed.

Lemma in_ids : forall c id, In id (ids c) <-> (term c <= id < term c + cap c).
Proof.
  intros c id. unfold ids. rewrite in_map_iff. split.
  - intros (i & E & Hi). apply in_seq in Hi. lia.
  - intros H. exists (N.to_nat (id - term c)). split; [lia|]. apply in_seq. lia.
Qed.

Lemma ids_nodup : forall c, NoDup (ids c).
Proof.
  intros c. unfold ids. apply FinFun.Injective_map_NoDup.
  - intros a b H. lia.
  - apply seq_NoDup.
Qed.

Lemma ids_length : forall c, length (ids c) = N.to_nat (cap c).
Proof. intros. unfold ids. rewrite map_length, seq_length. reflexivity. Qed.

(** ** counting *)

Lemma filter_length_le : forall (A : Type) (f : A -> bool) l, (length (filter f l) <= length l)%nat.
Proof. induction l; simpl; auto. destruct (f a); simpl; lia. Qed.

Lemma filter_negb_length : forall (A : Type) (f : A -> bool) l,
  (length (filter f l) + length (filter (fun x => negb (f x)) l) = length l)%nat.
Proof. induction l; simpl; auto. destruct (f a); simpl; lia. Qed.

(** a duplicate-free sub-list of the IDs and its complement *)
Lemma complement_count : forall (U F : list N) (f : N -> bool),
  NoDup U -> NoDup F -> (forall x, In x F -> In x U) ->
  (forall x, In x U -> (f x = true <-> ~ In x F)) ->
  (length (filter f U) + length F = length U)%nat.
Proof.
  intros U F f HU HF Hsub Hf. rewrite <- (filter_negb_length _ f U). f_equal.
  (* [F] is the part of [U] that [f] rejects *)
  apply Permutation_length. apply NoDup_Permutation; [exact HF | apply NoDup_filter; exact HU |].
  intros x. rewrite filter_In. split.
  - intros Hx. split; [auto|]. destruct (f x) eqn:E; [|reflexivity].
    exfalso. apply (proj1 (Hf x (Hsub x Hx)) E Hx).
  - intros [Hx Hn]. destruct (in_dec N.eq_dec x F) as [|n]; [assumption|].
    rewrite (proj2 (Hf x Hx) n) in Hn. discriminate.
Qed.

(** a single slot changes *)
Lemma filter_flip_length : forall (f g : N -> bool) (l : list N) x,
  NoDup l -> In x l -> (forall y, y <> x -> f y = g y) -> f x = false -> g x = true ->
  length (filter g l) = S (length (filter f l)).
Proof.
  induction l as [|a l IH]; intros x Hnd Hin Hext Hf Hg; [contradiction|].
  inversion Hnd; subst. cbn [filter]. destruct Hin as [E | Hin].
  - subst a. rewrite Hf, Hg. cbn [length]. f_equal. f_equal.
    apply filter_ext_in. intros y Hy. symmetry. apply Hext. intro; subst; contradiction.
  - assert (a <> x) as Hax by (intro; subst; contradiction).
    rewrite (Hext a Hax). destruct (g a); cbn [length]; [f_equal|]; eapply IH; eauto.
Qed.

Lemma nlive_set_node : forall c m id,
  term c <= id < term c + cap c -> sget m id <> SNode ->
  length (filter (fun x => is_node (sget (sset m id SNode) x)) (ids c)) =
  S (length (filter (fun x => is_node (sget m x)) (ids c))).
Proof.
  intros c m id Hr Hn. apply filter_flip_length with (x := id).
  - apply ids_nodup.
  - apply in_ids; auto.
  - intros y Hy. rewrite sget_sset_other; auto.
  - destruct (sget m id); simpl; congruence.
  - rewrite sget_sset_same. reflexivity.
Qed.

Lemma nlive_unset_node : forall c m id s,
  term c <= id < term c + cap c -> sget m id = SNode -> s <> SNode ->
  length (filter (fun x => is_node (sget m x)) (ids c)) =
  S (length (filter (fun x => is_node (sget (sset m id s) x)) (ids c))).
Proof.
  intros c m id s Hr Hn Hs. apply filter_flip_length with (x := id).
  - apply ids_nodup.
  - apply in_ids; auto.
  - intros y Hy. rewrite sget_sset_other; auto.
  - rewrite sget_sset_same. destruct s; simpl; congruence.
  - rewrite Hn. reflexivity.
Qed.

Lemma nlive_same : forall c m m',
  (forall id, term c <= id < term c + cap c -> is_node (sget m' id) = is_node (sget m id)) ->
  length (filter (fun x => is_node (sget m' x)) (ids c)) =
  length (filter (fun x => is_node (sget m x)) (ids c)).
Proof.
  intros. f_equal. apply filter_ext_in. intros x Hx. apply H. apply in_ids. exact Hx.
Qed.

(** ** the sum of the deltas *)

Lemma sum_delta_app : forall sh m a b,
  sum_delta (mkSt sh m (a ++ b)) = (sum_delta (mkSt sh m a) + sum_delta (mkSt sh m b))%Z.
Proof.
  intros. unfold sum_delta. simpl. induction a; simpl; [lia|]. rewrite IHa. lia.
Qed.

Definition sumd (l : list local) : Z := fold_right (fun l a => (l_delta l + a)%Z) 0%Z l.

Lemma sum_delta_sumd : forall s, sum_delta s = sumd (th s).
Proof. reflexivity. Qed.

Lemma sumd_app : forall a b, sumd (a ++ b) = (sumd a + sumd b)%Z.
Proof. induction a; simpl; intros; [lia|]. rewrite IHa. lia. Qed.

Lemma sumd_upd : forall l i y x, nth_error l i = Some y ->
  sumd (upd l i x) = (sumd l - l_delta y + l_delta x)%Z.
Proof.
  intros l i y x H. destruct (nth_error_split_upd _ _ _ _ H) as (a & b & E & _ & U).
  rewrite U. subst l. rewrite !sumd_app. simpl. lia.
Qed.

Lemma sumd_repeat_fresh : forall n, sumd (repeat lfresh n) = 0%Z.
Proof. induction n; simpl; auto. Qed.
