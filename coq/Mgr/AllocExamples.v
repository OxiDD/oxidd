(** * ALLOC — concrete runs of the slot allocator model: non-vacuity of the invariant
      (2-3 threads, chunk size 2, capacity 6, every action, every path) and computed
      schedules on which the known defective variants violate the theorems. *)

From Coq Require Import List NArith ZArith PArith Bool Arith Lia.
From OxiVerif Require Import Mgr.Alloc Mgr.AllocBase Mgr.AllocInv Mgr.AllocStep Mgr.AllocProofs.
Import ListNotations.
Local Open Scope N_scope.

(** capacity 6, chunk size 2, 2 terminals (slot IDs 2..7), no background collector *)
Definition ex_cfg : cfg := mkCfg 6 2 2 0 0.

Lemma ex_cfg_ok : 1 <= chunk ex_cfg /\ 1 <= term ex_cfg.
Proof. cbv. split; discriminate. Qed.

(** thread 0: guard, chunk pre-allocation, range, hand-over after 2 frees, guard drop returning the
    rest of its chunk; thread 1: a bound worker; non-local free and allocation; a third thread;
    out of memory; the collector epilogue *)
Definition ex_sched_a : list act :=
  [APrepare 0; AAlloc 0; AAlloc 0; AAlloc 0; ABind 1; AAlloc 1; APrepare 1;
   AFree 0 2; AFree 0 3; AAlloc 1; ADropGuard 0; AOtherEnter 0; APrepare 0; AFree 0 4; AAlloc 0; AAlloc 0;
   AOtherLeave 0 7 9; ASpawn; APrepare 2; AAlloc 2; AAlloc 2; AAlloc 2; AFree 1 6; AGcFlush 1; AAlloc 2;
   AFree 2 4; ADropGuard 2; AAlloc 1; AAlloc 1; AGcFlush 1].

Definition ex_obs_a : list obs :=
  [OPrep true; OAlloc (Some 2) PSharedChunk; OAlloc (Some 3) PLocalRange; OAlloc (Some 4) PSharedChunk; OUnit;
   OAlloc (Some 6) PSharedBump; OPrep false; OFree false; OFree true; OAlloc (Some 3) PSharedList;
   ODrop true 5; OUnit; OPrep false; OFree false; OAlloc (Some 4) PNonLocalList; OAlloc (Some 5) PNonLocalList;
   OUnit; OUnit; OPrep true; OAlloc (Some 2) PSharedList; OAlloc (Some 7) PSharedBump; OAlloc None POom;
   OFree false; OFlush 6; OAlloc (Some 6) PSharedList; OFree false; ODrop true 4; OAlloc (Some 4) PSharedList;
   OAlloc None POom; OFlush 0].

(** guard drop with nothing to return, local list, taking a whole shared list (a chunk can still
    be pre-allocated), non-local bump *)
Definition ex_sched_b : list act :=
  [APrepare 0; ADropGuard 0; APrepare 0; AAlloc 0; AFree 0 2; ADropGuard 0;
   ASpawn; ABind 1; AAlloc 1; AAlloc 1; AOtherEnter 0; AAlloc 0; AOtherLeave 0 7 9;
   APrepare 2; APrepare 2; AAlloc 2; AAlloc 2; AAlloc 2; AAlloc 2;
   AFree 2 5; AFree 2 6; AFree 1 3; AGcFlush 1; AAlloc 2; ADropGuard 2;
   AOtherEnter 2; AFree 2 4; AAlloc 2; AOtherLeave 2 0 0; AAlloc 1; AAlloc 1; AGcFlush 1].

Definition ex_obs_b : list obs :=
  [OPrep true; ODrop false 0; OPrep true; OAlloc (Some 2) PSharedChunk; OFree false; ODrop true 3; OUnit; OUnit;
   OAlloc (Some 3) PSharedList; OAlloc (Some 2) PLocalList; OUnit; OAlloc (Some 4) PNonLocalBump; OUnit;
   OPrep true; OPrep false; OAlloc (Some 5) PSharedChunk; OAlloc (Some 6) PSharedBump; OAlloc (Some 7) PSharedBump;
   OAlloc None POom; OFree false; OFree true; OFree false; OFlush 3; OAlloc (Some 3) PSharedList; ODrop false 0;
   OUnit; OFree false; OAlloc (Some 4) PNonLocalList; OUnit; OAlloc (Some 6) PSharedList;
   OAlloc (Some 5) PSharedList; OFlush 0].

Definition paths_of (os : list obs) : list path :=
  flat_map (fun o => match o with OAlloc _ p => [p] | _ => [] end) os.

Definition path_eqb (a b : path) : bool :=
  match a, b with
  | PLocalList, PLocalList | PLocalRange, PLocalRange | PSharedList, PSharedList | PSharedChunk, PSharedChunk
  | PSharedBump, PSharedBump | PNonLocalList, PNonLocalList | PNonLocalBump, PNonLocalBump | POom, POom => true
  | _, _ => false
  end.

Definition all_paths : list path :=
  [PLocalList; PLocalRange; PSharedList; PSharedChunk; PSharedBump; PNonLocalList; PNonLocalBump; POom].

(** the hypotheses of all theorems are satisfiable: both schedules are behaviours of the model,
    they reach states with all 6 slots live after going through every action and every path,
    the reached states satisfy the invariant (and the executable checker agrees) *)
Theorem example_runs :
  exists sa sb,
    run ex_cfg good (init ex_cfg 2) ex_sched_a = Some (sa, ex_obs_a) /\
    run ex_cfg good (init ex_cfg 2) ex_sched_b = Some (sb, ex_obs_b) /\
    AInv ex_cfg sa /\ AInv ex_cfg sb /\
    ainv_b ex_cfg sa = true /\ ainv_b ex_cfg sb = true /\
    live_slots ex_cfg sa = [2; 3; 4; 5; 6; 7] /\ live_slots ex_cfg sb = [2; 3; 4; 5; 6; 7] /\
    forallb (fun p => existsb (path_eqb p) (paths_of (ex_obs_a ++ ex_obs_b))) all_paths = true.
Proof.
  evar (sa : st). evar (sb : st).
  assert (run ex_cfg good (init ex_cfg 2) ex_sched_a = Some (sa, ex_obs_a)) as Ea
    by (subst sa; vm_compute; reflexivity).
  assert (run ex_cfg good (init ex_cfg 2) ex_sched_b = Some (sb, ex_obs_b)) as Eb
    by (subst sb; vm_compute; reflexivity).
  exists sa, sb. split; [exact Ea|]. split; [exact Eb|].
  split; [eapply run_inv; [|exact Ea]; apply init_inv; apply ex_cfg_ok|].
  split; [eapply run_inv; [|exact Eb]; apply init_inv; apply ex_cfg_ok|].
  subst sa sb. repeat split; vm_compute; reflexivity.
Qed.

(** ** refutations of the defective variants (computed schedules) *)

Definition summary (c : cfg) (r : option (st * list obs)) :=
  match r with
  | Some (s, os) =>
    Some (last os OUnit, s_free (sh s), s_count (sh s), sum_delta s, nlive c s, map l_next (th s),
          live_slots c s, (shared_slots c s, local_slots c s, range_slots c s, unalloc_slots c s), ainv_b c s)
  | None => None
  end.

(** seeded C01e ([v_no_reset]): thread 0 frees two slots (chunk size 2: the second free hands its
    list [3; 2] over to the shared state) and allocates again.  The variant keeps the list head:
    slot 3 is handed out from the thread's local list although it is the head of a shared list; it
    now holds a node AND heads a free list (the partition is violated), the next thread that asks the
    shared state would be handed the live slot 3 (the model is stuck on a list head that is a node).
    The code as it is hands out slot 5 from the thread's range instead. *)
Definition sched_no_reset : list act :=
  [APrepare 0; AAlloc 0; AAlloc 0; AAlloc 0; AFree 0 2; AFree 0 3; AAlloc 0].

Theorem no_reset_refuted :
  summary ex_cfg (run ex_cfg var_no_reset (init ex_cfg 2) sched_no_reset) =
    Some (OAlloc (Some 3) PLocalList, [3], 1%Z, 1%Z, 2%nat, [2; 0], [3; 4], ([], [2], [5], [6; 7]), false) /\
  run ex_cfg var_no_reset (init ex_cfg 2) (sched_no_reset ++ [ABind 1; AAlloc 1]) = None /\
  summary ex_cfg (run ex_cfg good (init ex_cfg 2) sched_no_reset) =
    Some (OAlloc (Some 5) PLocalRange, [3], 1%Z, 1%Z, 2%nat, [0; 0], [4; 5], ([3; 2], [], [], [6; 7]), true).
Proof. repeat split; vm_compute; reflexivity. Qed.

(** capacity 3 <= chunk size 4: a manager that never pre-allocates a chunk (as the small managers
    of the correspondence runs) *)
Definition sm_cfg : cfg := mkCfg 3 4 2 0 0.

(** seeded C14f ([v_cap_first]): a single thread whose local state belongs to another store fills
    the store, frees slot 3 and allocates again: OutOfMemory although slot 3 is in the shared list
    (contradicts [oom_iff] / [oom_single]); the code as it is returns slot 3 *)
Definition sched_cap_first : list act :=
  [AOtherEnter 0; AAlloc 0; AAlloc 0; AAlloc 0; AFree 0 3; AAlloc 0].

Theorem cap_first_refuted :
  summary sm_cfg (run sm_cfg var_cap_first (init sm_cfg 1) sched_cap_first) =
    Some (OAlloc None POom, [3], 3%Z, 0%Z, 2%nat, [0], [2; 4], ([3], [], [], []), false) /\
  summary sm_cfg (run sm_cfg good (init sm_cfg 1) sched_cap_first) =
    Some (OAlloc (Some 3) PNonLocalList, [], 3%Z, 0%Z, 3%nat, [0], [2; 3; 4], ([], [], [], []), true).
Proof. repeat split; vm_compute; reflexivity. Qed.

(** the code before /repo 45ba7ac ([v_take_all]): thread 0 returns a list of three slots at guard
    drop; the worker thread 1 allocates ONE node and takes the whole list: it now holds slots 3 and
    2 although it never freed a slot (contradicts [alloc_no_hoard_scarce]), and thread 0 gets
    OutOfMemory with 1 of 3 slots live.  The code as it is hands slot 3 to thread 0. *)
Definition sched_take_all : list act :=
  [APrepare 0; AAlloc 0; AAlloc 0; AAlloc 0; AFree 0 2; AFree 0 3; AFree 0 4; ADropGuard 0;
   ABind 1; AAlloc 1; APrepare 0; AAlloc 0].

Theorem take_all_refuted :
  summary sm_cfg (run sm_cfg var_take_all (init sm_cfg 2) sched_take_all) =
    Some (OAlloc None POom, [], 1%Z, 0%Z, 1%nat, [0; 3], [4], ([], [3; 2], [], []), true) /\
  summary sm_cfg (run sm_cfg good (init sm_cfg 2) sched_take_all) =
    Some (OAlloc (Some 3) PSharedList, [2], 2%Z, 0%Z, 2%nat, [0; 0], [3; 4], ([2], [], [], []), true).
Proof. repeat split; vm_compute; reflexivity. Qed.

(** seeded C05c ([v_tail_zero]): capacity 10, chunk size 4; thread 0 allocates slot 2 from a new
    chunk (range 3..5), frees it (local list [2]) and drops its guard: the variant terminates the
    chunk list with 0, slot 2 is in no list any more: at quiescence 9 free slots + 0 live <> 10
    (contradicts [quiescent_no_leak]) *)
Definition lk_cfg : cfg := mkCfg 10 4 2 0 0.
Definition sched_tail_zero : list act := [APrepare 0; AAlloc 0; AFree 0 2; ADropGuard 0].

Theorem tail_zero_refuted :
  summary lk_cfg (run lk_cfg var_tail_zero (init lk_cfg 1) sched_tail_zero) =
    Some (ODrop true 3, [3], 0%Z, 0%Z, 0%nat, [2], [], ([3; 4; 5], [], [], [6; 7; 8; 9; 10; 11]), false) /\
  summary lk_cfg (run lk_cfg good (init lk_cfg 1) sched_tail_zero) =
    Some (ODrop true 3, [3], 0%Z, 0%Z, 0%nat, [2], [], ([3; 4; 5; 2], [], [], [6; 7; 8; 9; 10; 11]), true).
Proof. repeat split; vm_compute; reflexivity. Qed.

(** seeded C07b ([v_no_prep_reset]): thread 0 returns the list [3; 2] at guard drop and enters the
    manager again: the variant still has 3 as its local list head and hands it out while it heads
    the shared list; the next request to the shared state is stuck on the live slot 3 *)
Definition sched_no_prep_reset : list act :=
  [APrepare 0; AAlloc 0; AAlloc 0; AFree 0 2; AFree 0 3; ADropGuard 0; APrepare 0; AAlloc 0].

Theorem no_prep_reset_refuted :
  summary sm_cfg (run sm_cfg var_no_prep_reset (init sm_cfg 2) sched_no_prep_reset) =
    Some (OAlloc (Some 3) PLocalList, [3], 0%Z, 1%Z, 1%nat, [2; 0], [3], ([], [2], [], [4]), false) /\
  run sm_cfg var_no_prep_reset (init sm_cfg 2) (sched_no_prep_reset ++ [ABind 1; AAlloc 1]) = None /\
  summary sm_cfg (run sm_cfg good (init sm_cfg 2) sched_no_prep_reset) =
    Some (OAlloc (Some 3) PSharedList, [2], 1%Z, 0%Z, 1%nat, [0; 0], [3], ([2], [], [], [4]), true).
Proof. repeat split; vm_compute; reflexivity. Qed.

(** the code before the fix "a failed node allocation is not counted" ([v_oom_drift]): two failed
    allocations on a full store of capacity 3: shared count 5 with 3 live slots at quiescence
    (contradicts [count_exact] / [quiescent_count]) *)
Definition sched_oom_drift : list act :=
  [APrepare 0; AAlloc 0; AAlloc 0; AAlloc 0; AAlloc 0; AAlloc 0; ADropGuard 0].

Theorem oom_drift_refuted :
  summary sm_cfg (run sm_cfg var_oom_drift (init sm_cfg 1) sched_oom_drift) =
    Some (ODrop false 0, [], 5%Z, 0%Z, 3%nat, [0], [2; 3; 4], ([], [], [], []), false) /\
  summary sm_cfg (run sm_cfg good (init sm_cfg 1) sched_oom_drift) =
    Some (ODrop false 0, [], 3%Z, 0%Z, 3%nat, [0], [2; 3; 4], ([], [], [], []), true).
Proof. repeat split; vm_compute; reflexivity. Qed.

(** the code before the fix "the freed node that triggers the hand-over is counted"
    ([v_ho_drift]): chunk size 2, the second free hands the list over: shared count 2 with 1 live slot *)
Definition sched_ho_drift : list act :=
  [APrepare 0; AAlloc 0; AAlloc 0; AAlloc 0; AFree 0 2; AFree 0 3; ADropGuard 0].

Theorem ho_drift_refuted :
  summary ex_cfg (run ex_cfg var_ho_drift (init ex_cfg 1) sched_ho_drift) =
    Some (ODrop true 5, [5; 3], 2%Z, 0%Z, 1%nat, [0], [4], ([5; 3; 2], [], [], [6; 7]), false) /\
  summary ex_cfg (run ex_cfg good (init ex_cfg 1) sched_ho_drift) =
    Some (ODrop true 5, [5; 3], 1%Z, 0%Z, 1%nat, [0], [4], ([5; 3; 2], [], [], [6; 7]), true).
Proof. repeat split; vm_compute; reflexivity. Qed.
