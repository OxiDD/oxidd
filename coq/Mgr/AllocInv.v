(** * ALLOC — the invariant of the slot allocator model and generic preservation lemmas

    [AInvW c s fs ls]: [fs] are the shared free lists, [ls] the threads' local free lists as
    lists of slot IDs (ghost witnesses; they are determined by the state: [Chain_fun]).  The
    invariant says that they really are the heap chains that start at the heads stored in the
    state, that together with the threads' pre-allocated ranges and the never-allocated rest
    of the slot array they are duplicate-free and inside the slot array, that exactly the other
    slots hold a node, and that the node count bookkeeping is exact. *)

From Coq Require Import List NArith ZArith PArith Bool Arith Lia Permutation FMapPositive.
From OxiVerif Require Import Base.ListFacts Mgr.Alloc Mgr.AllocBase.
Import ListNotations.
Local Open Scope N_scope.

Arguments N.add : simpl never.
Arguments N.sub : simpl never.
Arguments N.mul : simpl never.
Arguments N.div : simpl never.
Arguments N.modulo : simpl never.

Lemma NoDup_app_disj : forall (a b : list N) x, NoDup (a ++ b) -> In x a -> ~ In x b.
Proof.
  induction a; simpl; intros; [contradiction|]. inversion H; subst. destruct H0.
  - subst. intro. apply H3. apply in_or_app. right; auto.
  - eapply IHa; eauto.
Qed.

(** ** the invariant *)

Definition lchainP (m : smap) (l : local) (x : list N) : Prop :=
  if is_this (l_cur l) then Chain m (l_next l) x else x = [].

Definition local_ok (c : cfg) (s : shared) (l : local) : Prop :=
  (l_guard l = true -> l_cur l = CThis) /\
  (l_cur l <> CThis -> l_delta l = 0%Z) /\
  (l_cur l = CThis -> in_chunk c (l_init l) = true -> chunk_end c (l_init l) <= s_alloc s).

Definition unalloc (c : cfg) (a : N) : list N := range_ids c a (N.to_nat (cap c - a)).

(** all free slots, from the witnesses *)
Definition wfree (c : cfg) (s : st) (fs ls : list (list N)) : list N :=
  concat fs ++ concat ls ++ flat_map (lrange c) (th s) ++ unalloc c (s_alloc (sh s)).

Definition in_arr (c : cfg) (id : N) : Prop := term c <= id < term c + cap c.

Record AInvW (c : cfg) (s : st) (fs ls : list (list N)) : Prop := mkInv {
  w_chunk : 1 <= chunk c;
  w_term : 1 <= term c;
  w_alloc : s_alloc (sh s) <= cap c;
  w_heads : Forall (fun h => h <> 0) (s_free (sh s));
  w_schains : Forall2 (Chain (sl s)) (s_free (sh s)) fs;
  w_lchains : Forall2 (lchainP (sl s)) (th s) ls;
  w_locals : Forall (local_ok c (sh s)) (th s);
  w_nodup : NoDup (wfree c s fs ls);
  w_range : forall id, In id (wfree c s fs ls) -> in_arr c id;
  w_nodes : forall id, sget (sl s) id = SNode -> in_arr c id;
  w_live : forall id, in_arr c id -> (sget (sl s) id = SNode <-> ~ In id (wfree c s fs ls));
  w_count : (s_count (sh s) + sumd (th s))%Z = Z.of_nat (nlive c s)
}.

Definition AInv (c : cfg) (s : st) : Prop := exists fs ls, AInvW c s fs ls.

(** ** chains under heap changes *)

Lemma Chain_ext : forall m m' h l,
  Chain m h l -> (forall j, In j l -> sget m' j = sget m j) -> Chain m' h l.
Proof.
  induction 1; intros; [constructor|]. econstructor; eauto.
  - rewrite H2; [eauto | left; auto].
  - apply IHChain. intros. apply H2. right; auto.
Qed.

Lemma schains_ext : forall m m' hs fs,
  Forall2 (Chain m) hs fs -> (forall j, In j (concat fs) -> sget m' j = sget m j) ->
  Forall2 (Chain m') hs fs.
Proof.
  induction 1; intros; constructor.
  - eapply Chain_ext; eauto. intros. apply H1. simpl. apply in_or_app. left; auto.
  - apply IHForall2. intros. apply H1. simpl. apply in_or_app. right; auto.
Qed.

Lemma lchains_ext : forall m m' a la,
  Forall2 (lchainP m) a la -> (forall j, In j (concat la) -> sget m' j = sget m j) ->
  Forall2 (lchainP m') a la.
Proof.
  induction 1; intros; constructor.
  - unfold lchainP in *. destruct (is_this (l_cur x)); auto.
    eapply Chain_ext; eauto. intros. apply H1. simpl. apply in_or_app. left; auto.
  - apply IHForall2. intros. apply H1. simpl. apply in_or_app. right; auto.
Qed.

Lemma Forall2_split_nth : forall (A B : Type) (P : A -> B -> Prop) l k i x,
  Forall2 P l k -> nth_error l i = Some x ->
  exists a b ka y kb, l = a ++ x :: b /\ k = ka ++ y :: kb /\ length a = i /\ length ka = i.
Proof.
  intros A B P l k i x H. revert i. induction H; destruct i; simpl; intros; try discriminate.
  - inversion H1; subst. exists [], l, [], y, l'. auto.
  - destruct (IHForall2 _ H1) as (a & b & ka & y0 & kb & E1 & E2 & L1 & L2).
    exists (x0 :: a), b, (y :: ka), y0, kb. subst. simpl. auto.
Qed.

Lemma Forall2_mid_inv : forall (A B : Type) (P : A -> B -> Prop) a x b ka y kb,
  Forall2 P (a ++ x :: b) (ka ++ y :: kb) -> length a = length ka ->
  Forall2 P a ka /\ P x y /\ Forall2 P b kb.
Proof.
  induction a; destruct ka; simpl; intros y kb H L; try discriminate; inversion H; subst.
  - auto.
  - destruct (IHa x b ka y kb) as (F1 & Pxy & F2); auto.
Qed.

Lemma locals_mono : forall c s s' ls,
  Forall (local_ok c s) ls -> s_alloc s <= s_alloc s' -> Forall (local_ok c s') ls.
Proof.
  intros. eapply Forall_impl; [|eassumption]. intros l (A & B & C). repeat split; auto.
  intros. specialize (C H1 H2). lia.
Qed.

Definition Shape (c : cfg) (s : st) (fs ls : list (list N)) : Prop :=
  s_alloc (sh s) <= cap c /\
  Forall (fun h => h <> 0) (s_free (sh s)) /\
  Forall2 (Chain (sl s)) (s_free (sh s)) fs /\
  Forall2 (lchainP (sl s)) (th s) ls /\
  Forall (local_ok c (sh s)) (th s).

Lemma inv_shape : forall c s fs ls, AInvW c s fs ls -> Shape c s fs ls.
Proof. intros c s fs ls I. destruct I. repeat split; assumption. Qed.

Lemma shape_ext : forall c sh0 m m' thr fs ls,
  Shape c (mkSt sh0 m thr) fs ls ->
  (forall j, In j (concat fs ++ concat ls) -> sget m' j = sget m j) ->
  Shape c (mkSt sh0 m' thr) fs ls.
Proof.
  intros c sh0 m m' thr fs ls (A & H & S & L & W) E. repeat split; auto; simpl in *.
  - eapply schains_ext; eauto. intros. apply E. apply in_or_app. left; auto.
  - eapply lchains_ext; eauto. intros. apply E. apply in_or_app. right; auto.
Qed.

(** ** generic preservation: a slot is handed out / returned / slots move between lists *)

Lemma in_arr_nonzero : forall c id, 1 <= term c -> in_arr c id -> id <> 0.
Proof. unfold in_arr. intros. lia. Qed.

Lemma wfree_lists : forall c s fs ls id, In id (concat fs ++ concat ls) -> In id (wfree c s fs ls).
Proof. intros. unfold wfree. rewrite app_assoc. apply in_or_app. left; auto. Qed.

(** the lists of the new state are given in the OLD heap: the slot handed out is in none of them *)
Lemma inv_alloc_generic : forall c s fs ls s' fs' ls' id,
  AInvW c s fs ls ->
  Permutation (id :: wfree c s' fs' ls') (wfree c s fs ls) ->
  sl s' = sset (sl s) id SNode ->
  Shape c (mkSt (sh s') (sl s) (th s')) fs' ls' ->
  (s_count (sh s') + sumd (th s') = s_count (sh s) + sumd (th s) + 1)%Z ->
  AInvW c s' fs' ls'.
Proof.
  intros c s fs ls s' fs' ls' id I P Hm S Hc.
  assert (In id (wfree c s fs ls)) as Hin by (eapply Permutation_in; [exact P | left; auto]).
  assert (NoDup (id :: wfree c s' fs' ls')) as Hnd.
  { eapply Permutation_NoDup; [apply Permutation_sym; exact P | apply (w_nodup _ _ _ _ I)]. }
  inversion Hnd as [|? ? Hni Hnd']; subst.
  assert (in_arr c id) as Hr by (apply (w_range _ _ _ _ I); auto).
  assert (sget (sl s) id <> SNode) as Hnn.
  { intro E. apply (proj1 (w_live _ _ _ _ I id Hr) E). exact Hin. }
  destruct s' as [sh' m' th']. simpl in Hm. subst m'.
  destruct (shape_ext _ _ _ (sset (sl s) id SNode) _ _ _ S) as (A & H & SC & LC & W).
  { intros j Hj. apply sget_sset_other. intro; subst j. apply Hni. apply wfree_lists. exact Hj. }
  constructor; auto; try (destruct I; assumption); simpl.
  - intros j Hj. apply (w_range _ _ _ _ I). eapply Permutation_in; [exact P | right; auto].
  - intros j Hj. destruct (N.eq_dec j id); [subst; auto|].
    rewrite sget_sset_other in Hj; auto. apply (w_nodes _ _ _ _ I); auto.
  - intros j Hj. destruct (N.eq_dec j id).
    + subst. rewrite sget_sset_same. split; auto.
    + rewrite sget_sset_other; auto. rewrite (w_live _ _ _ _ I j Hj). split; intros Hn Hi; apply Hn.
      * eapply Permutation_in; [exact P | right; auto].
      * eapply Permutation_in in Hi; [|apply Permutation_sym; exact P]. destruct Hi; [congruence | auto].
  - simpl in Hc. rewrite Hc. rewrite (w_count _ _ _ _ I). unfold nlive, live_slots. simpl.
    rewrite (nlive_set_node c (sl s) id Hr Hnn). lia.
Qed.

Lemma inv_free_generic : forall c s fs ls s' fs' ls' id x,
  AInvW c s fs ls ->
  sget (sl s) id = SNode ->
  Permutation (wfree c s' fs' ls') (id :: wfree c s fs ls) ->
  sl s' = sset (sl s) id (SFree x) ->
  Shape c s' fs' ls' ->
  (s_count (sh s') + sumd (th s') = s_count (sh s) + sumd (th s) - 1)%Z ->
  AInvW c s' fs' ls'.
Proof.
  intros c s fs ls s' fs' ls' id x I Hn P Hm (Ha & Hh & Hs & Hl & Hlo) Hc.
  assert (in_arr c id) as Hr by (apply (w_nodes _ _ _ _ I); auto).
  assert (~ In id (wfree c s fs ls)) as Hni by (apply (w_live _ _ _ _ I id Hr); auto).
  constructor; auto; try (destruct I; assumption).
  - eapply Permutation_NoDup; [apply Permutation_sym; exact P|]. constructor; auto. apply (w_nodup _ _ _ _ I).
  - intros j Hj. eapply Permutation_in in Hj; [|exact P]. destruct Hj; [subst; auto|].
    apply (w_range _ _ _ _ I); auto.
  - intros j Hj. rewrite Hm in Hj. destruct (N.eq_dec j id).
    + subst. rewrite sget_sset_same in Hj. discriminate.
    + rewrite sget_sset_other in Hj; auto. apply (w_nodes _ _ _ _ I); auto.
  - intros j Hj. rewrite Hm. destruct (N.eq_dec j id).
    + subst. rewrite sget_sset_same. split; [discriminate|]. intros Hx. exfalso. apply Hx.
      eapply Permutation_in; [apply Permutation_sym; exact P | left; auto].
    + rewrite sget_sset_other; auto. rewrite (w_live _ _ _ _ I j Hj). split; intros Hx Hi; apply Hx.
      * eapply Permutation_in in Hi; [|exact P]. destruct Hi; [congruence | auto].
      * eapply Permutation_in; [apply Permutation_sym; exact P | right; auto].
  - rewrite Hc. rewrite (w_count _ _ _ _ I). unfold nlive, live_slots. rewrite Hm.
    rewrite (nlive_unset_node c (sl s) id (SFree x) Hr Hn) by discriminate. lia.
Qed.

Lemma inv_move_generic : forall c s fs ls s' fs' ls',
  AInvW c s fs ls ->
  Permutation (wfree c s' fs' ls') (wfree c s fs ls) ->
  (forall j, sget (sl s') j = SNode <-> sget (sl s) j = SNode) ->
  Shape c s' fs' ls' ->
  (s_count (sh s') + sumd (th s') = s_count (sh s) + sumd (th s))%Z ->
  AInvW c s' fs' ls'.
Proof.
  intros c s fs ls s' fs' ls' I P Hm (Ha & Hh & Hs & Hl & Hlo) Hc.
  constructor; auto; try (destruct I; assumption).
  - eapply Permutation_NoDup; [apply Permutation_sym; exact P|]. apply (w_nodup _ _ _ _ I).
  - intros j Hj. apply (w_range _ _ _ _ I). eapply Permutation_in; eauto.
  - intros j Hj. apply (w_nodes _ _ _ _ I). apply Hm; auto.
  - intros j Hj. rewrite Hm. rewrite (w_live _ _ _ _ I j Hj). split; intros Hx Hi; apply Hx.
    + eapply Permutation_in; eauto.
    + eapply Permutation_in; [apply Permutation_sym; exact P | auto].
  - rewrite Hc. rewrite (w_count _ _ _ _ I). unfold nlive, live_slots. f_equal.
    apply nlive_same. intros id _. destruct (Hm id) as [E1 E2].
    destruct (sget (sl s') id), (sget (sl s) id); simpl; auto;
      try discriminate (E1 eq_refl); discriminate (E2 eq_refl).
Qed.

(** ** chunk arithmetic *)

Lemma chunk_step : forall c i, 1 <= chunk c ->
  i < chunk_end c i /\ chunk_end c i <= i + chunk c /\
  (in_chunk c (i + 1) = true -> chunk_end c (i + 1) = chunk_end c i) /\
  (in_chunk c (i + 1) = false -> i + 1 = chunk_end c i).
Proof.
  intros c i Hc. unfold chunk_end, in_chunk.
  assert (chunk c <> 0) as Hz by lia.
  pose proof (N.div_mod i (chunk c) Hz) as E.
  pose proof (N.mod_lt i (chunk c) Hz) as L.
  set (q := i / chunk c) in *. set (r := i mod chunk c) in *.
  assert ((q + 1) * chunk c = chunk c * q + chunk c) as E2 by lia.
  repeat split; try lia.
  - intros H. apply negb_true_iff in H. apply N.eqb_neq in H.
    assert (r + 1 < chunk c) as L2.
    { destruct (N.lt_ge_cases (r + 1) (chunk c)); auto. exfalso. apply H.
      assert (i + 1 = chunk c * (q + 1) + 0) as E3 by lia.
      symmetry. apply (N.mod_unique _ _ (q + 1) 0); lia. }
    assert ((i + 1) / chunk c = q) as E3.
    { symmetry. apply (N.div_unique _ _ q (r + 1)); lia. }
    rewrite E3. reflexivity.
  - intros H. apply negb_false_iff in H. apply N.eqb_eq in H.
    destruct (N.lt_ge_cases (r + 1) (chunk c)).
    + exfalso. assert ((i + 1) mod chunk c = r + 1) as E3.
      { symmetry. apply (N.mod_unique _ _ q (r + 1)); lia. }
      lia.
    + lia.
Qed.

Lemma in_chunk_zero : forall c, in_chunk c 0 = false.
Proof. intros. unfold in_chunk. destruct (chunk c); reflexivity. Qed.
