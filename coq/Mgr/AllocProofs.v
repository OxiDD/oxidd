(** * ALLOC — theorems about the slot allocator model (coq/Mgr/Alloc.v), for every
      interleaving of the threads' actions ([run_inv], coq/Mgr/AllocStep.v):
      partition of the slot IDs, hand-outs, out-of-memory, quiescence, capacity probe. *)

From Coq Require Import List NArith ZArith PArith Bool Arith Lia Permutation FMapPositive.
From OxiVerif Require Import Base.ListFacts Mgr.Alloc Mgr.AllocBase Mgr.AllocInv Mgr.AllocStep.
Import ListNotations.
Local Open Scope N_scope.

Arguments N.add : simpl never.
Arguments N.sub : simpl never.
Arguments N.mul : simpl never.
Arguments N.div : simpl never.
Arguments N.modulo : simpl never.

(** ** the witnesses of the invariant are the executable lists *)

Lemma NoDup_concat_in : forall (L : list (list N)) f, NoDup (concat L) -> In f L -> NoDup f.
Proof.
  induction L; simpl; intros; [contradiction|]. destruct H0.
  - subst. eapply NoDup_app_l; eauto.
  - apply IHL; auto. eapply NoDup_app_r; eauto.
Qed.

Lemma Forall2_impl_in : forall (A B : Type) (P Q : A -> B -> Prop) l k,
  (forall x y, In y k -> P x y -> Q x y) -> Forall2 P l k -> Forall2 Q l k.
Proof.
  intros A B P Q l k H F. induction F; constructor.
  - apply H; [left; reflexivity | assumption].
  - apply IHF. intros. apply H; [right|]; assumption.
Qed.

Lemma Forall2_fun_map : forall (A B : Type) (g : A -> B) (Q : A -> Prop) l k,
  Forall2 (fun x y => g x = y /\ Q x) l k -> k = map g l /\ Forall Q l.
Proof.
  intros A B g Q l k F. induction F as [|x y l k [E HQ] F [IH1 IH2]]; [auto|].
  split; [simpl; congruence | constructor; assumption].
Qed.

(** a list of the invariant is duplicate-free and inside the slot array: the fuel is enough *)
Lemma witness_short : forall c s fs ls f, AInvW c s fs ls -> In f (fs ++ ls) -> (length f < fuel c)%nat.
Proof.
  intros c s fs ls f I Hf. unfold fuel. apply Nat.lt_succ_r. rewrite <- ids_length.
  pose proof (w_nodup _ _ _ _ I) as ND. unfold wfree in ND. rewrite app_assoc, <- concat_app in ND.
  apply NoDup_incl_length.
  - eapply NoDup_concat_in; [eapply NoDup_app_l; exact ND | exact Hf].
  - intros id Hi. apply in_ids. apply (w_range _ _ _ _ I). apply wfree_lists.
    rewrite <- concat_app. apply in_concat. eauto.
Qed.

Lemma witness_exec : forall c s fs ls, AInvW c s fs ls ->
  Forall2 (fun h f => chainl (fuel c) (sl s) h = f /\ chain_ok (fuel c) (sl s) h = true)
          (s_free (sh s)) fs /\
  Forall2 (fun l f => lchain c (sl s) l = f /\
                      (is_this (l_cur l) = true -> chain_ok (fuel c) (sl s) (l_next l) = true))
          (th s) ls.
Proof.
  intros c s fs ls I. pose proof (witness_short c s fs ls) as HL. split.
  - eapply Forall2_impl_in; [|apply (w_schains _ _ _ _ I)]. intros h f Hf C.
    apply (chainl_of_Chain _ _ _ C). apply HL; [exact I | apply in_or_app; auto].
  - eapply Forall2_impl_in; [|apply (w_lchains _ _ _ _ I)]. intros l f Hf C.
    unfold lchainP, lchain in *. destruct (is_this (l_cur l)); [|split; [auto | discriminate]].
    destruct (chainl_of_Chain _ _ _ C (fuel c)); [apply HL; [exact I | apply in_or_app; auto]|]. auto.
Qed.

Lemma witness_shared : forall c s fs ls,
  AInvW c s fs ls -> fs = map (chainl (fuel c) (sl s)) (s_free (sh s)).
Proof. intros c s fs ls I. apply (Forall2_fun_map _ _ _ _ _ _ (proj1 (witness_exec _ _ _ _ I))). Qed.

Lemma witness_local : forall c s fs ls,
  AInvW c s fs ls -> ls = map (lchain c (sl s)) (th s).
Proof. intros c s fs ls I. apply (Forall2_fun_map _ _ _ _ _ _ (proj2 (witness_exec _ _ _ _ I))). Qed.

Lemma wfree_free_slots : forall c s fs ls, AInvW c s fs ls -> wfree c s fs ls = free_slots c s.
Proof.
  intros c s fs ls I. unfold wfree, free_slots, shared_slots, local_slots, range_slots, unalloc_slots.
  rewrite (witness_shared _ _ _ _ I) at 1. rewrite (witness_local _ _ _ _ I) at 1.
  rewrite !flat_map_concat_map. reflexivity.
Qed.

(** the heads stored in the state really head well-formed lists *)
Theorem chains_ok : forall c s, AInv c s ->
  Forall (fun h => h <> 0 /\ chain_ok (fuel c) (sl s) h = true) (s_free (sh s)) /\
  Forall (fun l => is_this (l_cur l) = true -> chain_ok (fuel c) (sl s) (l_next l) = true) (th s).
Proof.
  intros c s (fs & ls & I). destruct (witness_exec _ _ _ _ I) as [E1 E2]. split.
  - apply Forall_and; [apply (w_heads _ _ _ _ I) | apply (Forall2_fun_map _ _ _ _ _ _ E1)].
  - apply (Forall2_fun_map _ _ _ _ _ _ E2).
Qed.

(** ** (a) SAFETY: the partition of the slot array *)

Lemma in_live_slots : forall c s id, In id (live_slots c s) <-> in_arr c id /\ sget (sl s) id = SNode.
Proof.
  intros. unfold live_slots. rewrite filter_In, in_ids. unfold in_arr.
  destruct (sget (sl s) id); simpl; intuition congruence.
Qed.

(** live slots, slots of the shared lists, of the threads' local lists, of the threads'
    pre-allocated ranges and the never-allocated rest: pairwise disjoint, duplicate-free, and
    together exactly the slot IDs TERMINALS .. TERMINALS + capacity *)
Theorem partition : forall c s, AInv c s ->
  NoDup (live_slots c s ++ shared_slots c s ++ local_slots c s ++ range_slots c s ++ unalloc_slots c s) /\
  Permutation (live_slots c s ++ shared_slots c s ++ local_slots c s ++ range_slots c s ++ unalloc_slots c s)
              (ids c).
Proof.
  intros c s (fs & ls & I).
  pose proof (wfree_free_slots _ _ _ _ I) as EW. unfold free_slots in EW.
  assert (NoDup (live_slots c s ++ wfree c s fs ls)) as ND.
  { apply NoDup_app_intro.
    - apply NoDup_filter. apply ids_nodup.
    - apply (w_nodup _ _ _ _ I).
    - intros id H1 H2. apply in_live_slots in H1. destruct H1 as [Hr Hn].
      apply (proj1 (w_live _ _ _ _ I id Hr) Hn). exact H2. }
  rewrite EW in ND. split; [exact ND|].
  apply NoDup_Permutation; [exact ND | apply ids_nodup|].
  intros id. rewrite in_ids. rewrite <- EW. rewrite in_app_iff, in_live_slots. split.
  - intros [[Hr _] | Hi]; [exact Hr | apply (w_range _ _ _ _ I); auto].
  - intros Hr. destruct (in_dec N.eq_dec id (wfree c s fs ls)); [right; auto|].
    left. split; [exact Hr|]. apply (w_live _ _ _ _ I id Hr). auto.
Qed.

(** ** what `add_node` does, by cases (no invariant needed) *)

Ltac split_ifs H :=
  repeat match type of H with
         | context [if ?b then _ else _] => let E := fresh "E" in destruct b eqn:E
         | context [match ?x with SUninit => _ | SNode => _ | SFree _ => _ end] =>
           let E := fresh "E" in destruct x eqn:E
         | context [match ?x with [] => _ | _ :: _ => _ end] =>
           let E := fresh "E" in destruct x eqn:E
         end; try discriminate.

Lemma add_node_shape : forall c s t l s' id p,
  add_node c good s t l = Some (s', OAlloc (Some id) p) ->
  sl s' = sset (sl s) id SNode /\
  match p with
  | PLocalList => is_this (l_cur l) = true /\ id = l_next l /\ id <> 0
  | PLocalRange => is_this (l_cur l) = true /\ l_next l = 0 /\ in_chunk c (l_init l) = true /\
                   id = l_init l + term c
  | PSharedList => is_this (l_cur l) = true /\ l_next l = 0 /\ in_chunk c (l_init l) = false /\
                   exists rest, s_free (sh s) = id :: rest
  | PNonLocalList => is_this (l_cur l) = false /\ exists rest, s_free (sh s) = id :: rest
  | PSharedChunk => is_this (l_cur l) = true /\ l_next l = 0 /\ in_chunk c (l_init l) = false /\
                    s_free (sh s) = [] /\ s_alloc (sh s) + chunk c < cap c /\ id = s_alloc (sh s) + term c
  | PSharedBump => is_this (l_cur l) = true /\ l_next l = 0 /\ in_chunk c (l_init l) = false /\
                   s_free (sh s) = [] /\ s_alloc (sh s) < cap c /\ id = s_alloc (sh s) + term c
  | PNonLocalBump => is_this (l_cur l) = false /\
                     s_free (sh s) = [] /\ s_alloc (sh s) < cap c /\ id = s_alloc (sh s) + term c
  | POom => False
  end.
Proof.
  intros c s t l s' id p H. unfold add_node, get_slot_from_shared in H.
  cbn [v_oom_drift v_take_all v_cap_first good l_cur l_guard l_next l_init l_delta negb andb orb] in H.
  destruct (is_this (l_cur l)) eqn:Et.
  - destruct (N.eqb_spec (l_next l) 0) as [En | En]; cbn [negb] in H.
    + destruct (in_chunk c (l_init l)) eqn:Hin.
      * inversion H; subst. simpl. auto.
      * destruct (s_free (sh s)) as [|h rest] eqn:Ef.
        -- destruct (s_alloc (sh s) + chunk c <? cap c) eqn:E1.
           ++ inversion H; subst. simpl. apply N.ltb_lt in E1. repeat split; auto.
           ++ destruct (s_alloc (sh s) <? cap c) eqn:E2; inversion H; subst.
              simpl. apply N.ltb_lt in E2. repeat split; auto.
        -- destruct (sget (sl s) h) eqn:Eg; try discriminate.
           destruct (s_alloc (sh s) + chunk c <? cap c); inversion H; subst; simpl; repeat split; eauto.
    + destruct (sget (sl s) (l_next l)) eqn:Eg; try discriminate. inversion H; subst. simpl. auto.
  - destruct (s_free (sh s)) as [|h rest] eqn:Ef.
    + destruct (cap c <=? s_alloc (sh s)) eqn:E1; inversion H; subst.
      simpl. apply N.leb_gt in E1. repeat split; auto.
    + destruct (sget (sl s) h) eqn:Eg; try discriminate. inversion H; subst. simpl. repeat split; eauto.
Qed.

Lemma add_node_oom_shape : forall c s t l s' p,
  add_node c good s t l = Some (s', OAlloc None p) ->
  p = POom /\ sl s' = sl s /\ s_free (sh s) = [] /\ cap c <= s_alloc (sh s) /\
  (is_this (l_cur l) = true -> l_next l = 0 /\ in_chunk c (l_init l) = false).
Proof.
  intros c s t l s' p H. unfold add_node, get_slot_from_shared in H.
  cbn [v_oom_drift v_take_all v_cap_first good l_cur l_guard l_next l_init l_delta negb andb orb] in H.
  destruct (is_this (l_cur l)) eqn:Et.
  - destruct (N.eqb_spec (l_next l) 0) as [En | En]; cbn [negb] in H.
    + destruct (in_chunk c (l_init l)) eqn:Hin; [inversion H|].
      destruct (s_free (sh s)) as [|h rest] eqn:Ef.
      * destruct (s_alloc (sh s) + chunk c <? cap c) eqn:E1; [inversion H|].
        destruct (s_alloc (sh s) <? cap c) eqn:E2; inversion H; subst.
        apply N.ltb_ge in E2. simpl. repeat split; auto.
      * destruct (sget (sl s) h) eqn:Eg; try discriminate.
        destruct (s_alloc (sh s) + chunk c <? cap c); try discriminate; try (inversion H; fail).
    + destruct (sget (sl s) (l_next l)) eqn:Eg; try discriminate; try (inversion H; fail).
  - destruct (s_free (sh s)) as [|h rest] eqn:Ef.
    + destruct (cap c <=? s_alloc (sh s)) eqn:E1; inversion H; subst.
      apply N.leb_le in E1. simpl. repeat split; auto; intros; congruence.
    + destruct (sget (sl s) h) eqn:Eg; try discriminate; try (inversion H; fail).
Qed.

Lemma add_node_oom_when : forall c s t l,
  s_free (sh s) = [] -> cap c <= s_alloc (sh s) ->
  (is_this (l_cur l) = true -> l_next l = 0 /\ in_chunk c (l_init l) = false) ->
  exists s', add_node c good s t l = Some (s', OAlloc None POom).
Proof.
  intros c s t l Hf Hc Ht. unfold add_node, get_slot_from_shared.
  cbn [v_oom_drift v_take_all v_cap_first good l_cur l_guard l_next l_init l_delta negb andb orb].
  rewrite Hf.
  assert ((s_alloc (sh s) + chunk c <? cap c) = false) as E1 by (apply N.ltb_ge; lia).
  assert ((s_alloc (sh s) <? cap c) = false) as E2 by (apply N.ltb_ge; lia).
  assert ((cap c <=? s_alloc (sh s)) = true) as E3 by (apply N.leb_le; lia).
  destruct (is_this (l_cur l)) eqn:Et.
  - destruct (Ht eq_refl) as [En Hin]. rewrite En, Hin. simpl. rewrite E1, E2. eauto.
  - rewrite E3. eauto.
Qed.

Lemma gsfs_frame : forall c s t l d s' o,
  get_slot_from_shared c good s t l d = Some (s', o) ->
  exists r p l', o = OAlloc r p /\ th s' = upd (th s) t l' /\ l_cur l' = l_cur l /\ l_delta l' = l_delta l /\
    ((s_alloc (sh s) + chunk c <? cap c) = false -> l_next l' = l_next l /\ l_init l' = l_init l).
Proof.
  intros c s t l d s' o H. unfold get_slot_from_shared in H.
  cbn [v_oom_drift v_take_all v_cap_first good negb andb orb] in H.
  split_ifs H; inversion H; subst; do 3 eexists; repeat (split; [reflexivity|]);
    intros; (congruence || (split; reflexivity)).
Qed.

Lemma add_node_frame : forall c s t l s' o,
  add_node c good s t l = Some (s', o) ->
  exists r p l', o = OAlloc r p /\ th s' = upd (th s) t l' /\ l_cur l' = l_cur l /\
    ((s_alloc (sh s) + chunk c <? cap c) = false -> l_next l = 0 -> in_chunk c (l_init l) = false ->
     l_next l' = 0 /\ l_init l' = l_init l).
Proof.
  intros c s t l s' o H. unfold add_node in H.
  destruct (is_this (l_cur l)).
  2:{ destruct (gsfs_frame _ _ _ _ _ _ _ H) as (r & p & l' & Eo & Eth & Ec & _ & Hk).
      exists r, p, l'. repeat split; auto; destruct (Hk H0); congruence. }
  destruct (N.eqb_spec (l_next l) 0) as [En | En]; cbn [negb] in H.
  - destruct (in_chunk c (l_init l)) eqn:Hin.
    + inversion H; subst. do 3 eexists. repeat (split; [reflexivity|]). intros; discriminate.
    + destruct (gsfs_frame _ _ _ _ _ _ _ H) as (r & p & l' & Eo & Eth & Ec & _ & Hk).
      exists r, p, l'. repeat split; auto; destruct (Hk H0); simpl in *; congruence.
  - destruct (sget (sl s) (l_next l)); try discriminate.
    inversion H; subst. do 3 eexists. repeat (split; [reflexivity|]). intros; contradiction.
Qed.

(** `add_node` is never stuck in a state that satisfies the invariant *)
Lemma add_node_total : forall c s t l,
  AInv c s -> nth_error (th s) t = Some l -> exists s' r p, add_node c good s t l = Some (s', OAlloc r p).
Proof.
  intros c s t l (fs & ls & I) H.
  destruct (Forall2_nth _ _ _ _ _ _ _ (w_lchains _ _ _ _ I) H) as (x & _ & Px).
  unfold add_node, get_slot_from_shared.
  cbn [v_oom_drift v_take_all v_cap_first good l_cur l_guard l_next l_init l_delta negb andb orb].
  assert (forall h rest, s_free (sh s) = h :: rest -> exists nx, sget (sl s) h = SFree nx) as Hhead.
  { intros h rest E. pose proof (w_schains _ _ _ _ I) as SC. pose proof (w_heads _ _ _ _ I) as HH.
    rewrite E in SC, HH. inversion SC as [|? ? ? ? C1 ?]; subst. inversion HH as [|? ? Hh ?]; subst.
    destruct (Chain_head _ _ _ C1 Hh) as (nx & ? & G & _). eauto. }
  destruct (is_this (l_cur l)) eqn:Et.
  - destruct (N.eqb_spec (l_next l) 0) as [En | En]; cbn [negb].
    + destruct (in_chunk c (l_init l)); [eauto|].
      destruct (s_free (sh s)) as [|h rest] eqn:Ef.
      * destruct (s_alloc (sh s) + chunk c <? cap c); [eauto|].
        destruct (s_alloc (sh s) <? cap c); eauto.
      * destruct (Hhead h rest eq_refl) as (nx & G). rewrite G.
        destruct (s_alloc (sh s) + chunk c <? cap c); eauto.
    + unfold lchainP in Px. rewrite Et in Px.
      destruct (Chain_head _ _ _ Px En) as (nx & ? & G & _). rewrite G. eauto.
  - destruct (s_free (sh s)) as [|h rest] eqn:Ef.
    + destruct (cap c <=? s_alloc (sh s)); eauto.
    + destruct (Hhead h rest eq_refl) as (nx & G). rewrite G. eauto.
Qed.

(** ** hand-outs *)

Lemma nth_map_lchain : forall c m (thr : list local) ls t l x,
  ls = map (lchain c m) thr -> nth_error thr t = Some l -> nth_error ls t = Some x -> x = lchain c m l.
Proof. intros. subst. rewrite nth_error_map, H0 in H1. simpl in H1. congruence. Qed.

Lemma in_flat_map_nth : forall (A : Type) (f : A -> list N) (l : list A) id,
  In id (flat_map f l) -> exists u x, nth_error l u = Some x /\ In id (f x).
Proof.
  intros. apply in_flat_map in H. destruct H as (x & Hx & Hi).
  destruct (In_nth_error _ _ Hx) as (u & E). eauto.
Qed.

Lemma nth_in_flat_map : forall (A : Type) (f : A -> list N) (l : list A) u x id,
  nth_error l u = Some x -> In id (f x) -> In id (flat_map f l).
Proof. intros. apply in_flat_map. exists x. split; auto. eapply nth_error_In; eauto. Qed.

(** where the slot comes from, by path *)
Theorem alloc_source : forall c s t l s' id p,
  AInv c s -> nth_error (th s) t = Some l ->
  add_node c good s t l = Some (s', OAlloc (Some id) p) ->
  match p with
  | PLocalList => exists r, lchain c (sl s) l = id :: r      (* the head of the thread's own list *)
  | PLocalRange => exists r, lrange c l = id :: r             (* the first slot of the thread's range *)
  | PSharedList | PNonLocalList =>                             (* the head of the first shared list *)
    exists h rest r, s_free (sh s) = h :: rest /\ chainl (fuel c) (sl s) h = id :: r
  | PSharedChunk | PSharedBump | PNonLocalBump =>              (* the first never-allocated slot *)
    exists r, unalloc_slots c s = id :: r
  | POom => False
  end.
Proof.
  intros c s t l s' id p (fs & ls & I) H G.
  destruct (add_node_shape _ _ _ _ _ _ _ G) as (_ & Sh).
  pose proof (witness_shared _ _ _ _ I) as E1. pose proof (witness_local _ _ _ _ I) as E2.
  assert (forall rest, s_free (sh s) = id :: rest ->
          exists h rest0 r, s_free (sh s) = h :: rest0 /\ chainl (fuel c) (sl s) h = id :: r) as Hsh.
  { intros rest E. pose proof (w_schains _ _ _ _ I) as SC. pose proof (w_heads _ _ _ _ I) as HH.
    rewrite E1 in SC. rewrite E in SC, HH. cbn [map] in SC.
    inversion SC as [|? ? ? ? C1 ?]. inversion HH as [|? ? Hh ?].
    destruct (Chain_head _ _ _ C1 Hh) as (nx & f1' & _ & Ef & _).
    exists id, rest, f1'. split; auto. }
  assert (s_alloc (sh s) < cap c -> exists r, unalloc_slots c s = (s_alloc (sh s) + term c) :: r) as Hun.
  { intros Ha. eexists. apply unalloc_step. exact Ha. }
  destruct p; try contradiction.
  - destruct Sh as (Et & Eid & Hn).
    destruct (Forall2_nth _ _ _ _ _ _ _ (w_lchains _ _ _ _ I) H) as (x & Ex & Px).
    unfold lchainP in Px. rewrite Et in Px. subst id.
    destruct (Chain_head _ _ _ Px Hn) as (nx & x' & _ & Ef & _).
    rewrite <- (nth_map_lchain _ _ _ _ _ _ _ E2 H Ex). eauto.
  - destruct Sh as (Et & En & Hin & Eid). subst id.
    rewrite (lrange_step c l (l_guard l) (l_next l) (l_delta l + 1)%Z (w_chunk _ _ _ _ I) Et Hin). eauto.
  - destruct Sh as (_ & _ & _ & rest & E). eauto.
  - destruct Sh as (_ & _ & _ & _ & Ha & Eid). subst id. apply Hun. lia.
  - destruct Sh as (_ & _ & _ & _ & Ha & Eid). subst id. apply Hun. exact Ha.
  - destruct Sh as (_ & rest & E). eauto.
  - destruct Sh as (_ & _ & Ha & Eid). subst id. apply Hun. exact Ha.
Qed.

(** the slot handed out was free (in exactly one of the lists / ranges), not live, inside the
    slot array; afterwards it is live and in no list or range *)
Theorem alloc_safe : forall c s t s' id p,
  AInv c s -> step c good s (AAlloc t) = Some (s', OAlloc (Some id) p) ->
  in_arr c id /\ In id (free_slots c s) /\ ~ In id (live_slots c s) /\
  In id (live_slots c s') /\ ~ In id (free_slots c s') /\ AInv c s'.
Proof.
  intros c s t s' id p I H.
  pose proof (step_inv _ _ _ _ _ I H) as I'.
  simpl in H. destruct (nth_error (th s) t) as [l|] eqn:E; [|discriminate].
  destruct (add_node_shape _ _ _ _ _ _ _ H) as (Esl & _).
  pose proof (alloc_source _ _ _ _ _ _ _ I E H) as Src.
  assert (In id (free_slots c s)) as Hfree.
  { unfold free_slots, shared_slots, local_slots, range_slots. rewrite !in_app_iff.
    destruct p; try contradiction.
    - destruct Src as (r & Er). right; left. eapply nth_in_flat_map; eauto. rewrite Er. left; auto.
    - destruct Src as (r & Er). right; right; left. eapply nth_in_flat_map; eauto. rewrite Er. left; auto.
    - destruct Src as (h & rest & r & Ef & Er). left. rewrite Ef. cbn [flat_map]. rewrite Er. left; auto.
    - destruct Src as (r & Er). rewrite Er. do 3 right. left; auto.
    - destruct Src as (r & Er). rewrite Er. do 3 right. left; auto.
    - destruct Src as (h & rest & r & Ef & Er). left. rewrite Ef. cbn [flat_map]. rewrite Er. left; auto.
    - destruct Src as (r & Er). rewrite Er. do 3 right. left; auto. }
  destruct I as (fs & ls & I). destruct I' as (fs' & ls' & I').
  rewrite <- (wfree_free_slots _ _ _ _ I) in Hfree.
  assert (in_arr c id) as Hr by (apply (w_range _ _ _ _ I); auto).
  assert (sget (sl s') id = SNode) as Hn' by (rewrite Esl; apply sget_sset_same).
  split; [exact Hr|]. split; [rewrite <- (wfree_free_slots _ _ _ _ I); exact Hfree|].
  split; [|split; [|split]].
  - intros Hl. apply in_live_slots in Hl. destruct Hl as [_ Hn].
    apply (proj1 (w_live _ _ _ _ I id Hr) Hn). exact Hfree.
  - apply in_live_slots. split; auto.
  - rewrite <- (wfree_free_slots _ _ _ _ I'). apply (w_live _ _ _ _ I' id Hr). exact Hn'.
  - exists fs', ls'. exact I'.
Qed.

(** `add_node` is never stuck *)
Theorem alloc_enabled : forall c s t,
  AInv c s -> (t < length (th s))%nat -> exists s' o, step c good s (AAlloc t) = Some (s', o).
Proof.
  intros c s t I Ht. simpl. destruct (nth_error (th s) t) as [l|] eqn:E.
  - destruct (add_node_total c s t l I E) as (s' & r & p & G). eauto.
  - apply nth_error_None in E. lia.
Qed.

(** ** (d) the node count bookkeeping and (b) no slot is lost *)

(** shared count + the threads' deltas = number of slots that hold a node *)
Theorem count_exact : forall c s, AInv c s ->
  (s_count (sh s) + sum_delta s)%Z = Z.of_nat (nlive c s).
Proof. intros c s (fs & ls & I). rewrite sum_delta_sumd. apply (w_count _ _ _ _ I). Qed.

(** #live + #free = capacity *)
Theorem free_count : forall c s, AInv c s ->
  (nlive c s + length (free_slots c s))%nat = N.to_nat (cap c).
Proof.
  intros c s I. destruct (partition c s I) as [_ P]. apply Permutation_length in P.
  rewrite ids_length in P. rewrite app_length in P. unfold nlive, free_slots. exact P.
Qed.

(** a thread holds no slot *)
Definition holds_nothing (c : cfg) (l : local) : Prop :=
  is_this (l_cur l) = true -> l_next l = 0 /\ in_chunk c (l_init l) = false.

Lemma holds_nothing_slots : forall c m l, holds_nothing c l -> lchain c m l ++ lrange c l = [].
Proof.
  unfold holds_nothing, lchain, lrange. intros c m l H. destruct (is_this (l_cur l)); [|reflexivity].
  destruct (H eq_refl) as [E1 E2]. rewrite E1, E2. reflexivity.
Qed.

Lemma slots_holds_nothing : forall c s t l, AInv c s -> nth_error (th s) t = Some l ->
  lchain c (sl s) l ++ lrange c l = [] -> holds_nothing c l.
Proof.
  intros c s t l (fs & ls & I) H E Et. apply app_eq_nil in E. destruct E as [E1 E2].
  destruct (Forall2_nth _ _ _ _ _ _ _ (w_lchains _ _ _ _ I) H) as (x & Ex & Px).
  rewrite <- (nth_map_lchain _ _ _ _ _ _ _ (witness_local _ _ _ _ I) H Ex) in E1. subst x.
  unfold lchainP in Px. rewrite Et in Px. split.
  - apply (Chain_nonnil_head _ _ _ Px). reflexivity.
  - unfold lrange in E2. rewrite Et in E2. destruct (in_chunk c (l_init l)) eqn:Hin; auto. exfalso.
    destruct (chunk_step c (l_init l) (w_chunk _ _ _ _ I)) as (A & _). simpl in E2.
    destruct (N.to_nat (chunk_end c (l_init l) - l_init l)) eqn:En; [lia | discriminate].
Qed.

(** no thread but [t] holds a slot *)
Definition others_idle_p (c : cfg) (s : st) (t : nat) : Prop :=
  forall u l, u <> t -> nth_error (th s) u = Some l -> holds_nothing c l.

Lemma flat_map_only : forall (A : Type) (f : A -> list N) (l : list A) t y,
  nth_error l t = Some y -> (forall u x, u <> t -> nth_error l u = Some x -> f x = []) ->
  flat_map f l = f y.
Proof.
  intros A f l. induction l; intros t y H Ho; destruct t; simpl in *; try discriminate.
  - inversion H; subst. rewrite flat_map_nil; [apply app_nil_r|].
    intros x Hx. destruct (In_nth_error _ _ Hx) as (u & Eu). apply (Ho (S u) x); auto.
  - rewrite (Ho 0%nat a) by auto. simpl. apply (IHl t y H). intros u x Hu. apply (Ho (S u) x). lia.
Qed.

Lemma lchain_nil : forall c m l, holds_nothing c l -> lchain c m l = [].
Proof. intros. pose proof (holds_nothing_slots c m l H) as E. apply app_eq_nil in E. tauto. Qed.

Lemma lrange_nil : forall c l, holds_nothing c l -> lrange c l = [].
Proof.
  intros. pose proof (holds_nothing_slots c (PositiveMap.empty slot) l H) as E. apply app_eq_nil in E. tauto.
Qed.

(** the free slots when only thread [t] may hold some *)
Lemma free_slots_single : forall c s t l, nth_error (th s) t = Some l -> others_idle_p c s t ->
  free_slots c s = shared_slots c s ++ lchain c (sl s) l ++ lrange c l ++ unalloc_slots c s.
Proof.
  intros c s t l H Ho. unfold free_slots, local_slots, range_slots.
  rewrite (flat_map_only _ (lchain c (sl s)) (th s) t l H).
  2:{ intros u x Hu Hx. apply lchain_nil. eapply Ho; eauto. }
  rewrite (flat_map_only _ (lrange c) (th s) t l H).
  2:{ intros u x Hu Hx. apply lrange_nil. eapply Ho; eauto. }
  reflexivity.
Qed.

(** at quiescence (no thread holds a slot: all guards dropped, the collector has returned its
    list) every slot that holds no node is reachable from the shared state *)
Theorem quiescent_no_leak : forall c s, AInv c s ->
  (forall t l, nth_error (th s) t = Some l -> holds_nothing c l) ->
  free_slots c s = shared_slots c s ++ unalloc_slots c s /\
  (nlive c s + length (shared_slots c s) + length (unalloc_slots c s))%nat = N.to_nat (cap c).
Proof.
  intros c s I Hq.
  assert (free_slots c s = shared_slots c s ++ unalloc_slots c s) as E.
  { unfold free_slots, local_slots, range_slots.
    rewrite (flat_map_nil _ _ (lchain c (sl s))).
    2:{ intros x Hx. destruct (In_nth_error _ _ Hx) as (u & Eu). apply lchain_nil. eauto. }
    rewrite (flat_map_nil _ _ (lrange c)).
    2:{ intros x Hx. destruct (In_nth_error _ _ Hx) as (u & Eu). apply lrange_nil. eauto. }
    reflexivity. }
  split; auto. pose proof (free_count c s I) as F. rewrite E, app_length in F. lia.
Qed.

(** ... and when no thread is bound to the store the shared count is exact *)
Theorem quiescent_count : forall c s, AInv c s ->
  (forall t l, nth_error (th s) t = Some l -> is_this (l_cur l) = false) ->
  s_count (sh s) = Z.of_nat (nlive c s).
Proof.
  intros c s I Hq. rewrite <- (count_exact c s I). destruct I as (fs & ls & I).
  assert (sumd (th s) = 0%Z) as E.
  { pose proof (w_locals _ _ _ _ I) as W.
    assert (forall l, In l (th s) -> is_this (l_cur l) = false) as Hq'.
    { intros l Hl. destruct (In_nth_error _ _ Hl) as (u & Eu). eauto. }
    clear Hq. induction W; simpl; auto. rewrite IHW by (intros; apply Hq'; right; auto).
    destruct H as (_ & W2 & _). rewrite W2; [lia|]. apply not_this_is. apply Hq'. left; auto. }
  rewrite sum_delta_sumd, E. lia.
Qed.

(** ** (c) OUT OF MEMORY *)

Local Opaque fuel.

Lemma shared_slots_nil : forall c s, AInv c s -> shared_slots c s = [] -> s_free (sh s) = [].
Proof.
  intros c s (fs & ls & I) E. destruct (s_free (sh s)) as [|h rest] eqn:Ef; auto. exfalso.
  pose proof (w_schains _ _ _ _ I) as SC. pose proof (w_heads _ _ _ _ I) as HH.
  rewrite (witness_shared _ _ _ _ I) in SC. rewrite Ef in SC, HH. cbn [map] in SC.
  inversion SC as [|? ? ? ? C1 ?]. inversion HH as [|? ? Hh ?].
  destruct (Chain_head _ _ _ C1 Hh) as (nx & f & _ & E2 & _).
  unfold shared_slots in E. rewrite Ef in E. cbn [flat_map] in E. rewrite E2 in E. discriminate.
Qed.

Lemma unalloc_slots_nil : forall c s, unalloc_slots c s = [] <-> cap c <= s_alloc (sh s).
Proof.
  intros. unfold unalloc_slots. split; intros H.
  - pose proof (range_ids_length c (s_alloc (sh s)) (N.to_nat (cap c - s_alloc (sh s)))) as L.
    rewrite H in L. simpl in L. lia.
  - apply unalloc_full. exact H.
Qed.

(** `add_node` of thread [t] fails if and only if no free slot is reachable by [t]: no shared
    list, nothing left to allocate, nothing in [t]'s own list or range.  (Slots parked in OTHER
    threads' local lists / ranges are not reachable: the code's documented imprecision.) *)
Theorem oom_iff : forall c s t l, AInv c s -> nth_error (th s) t = Some l ->
  ((exists s' p, step c good s (AAlloc t) = Some (s', OAlloc None p)) <->
   (shared_slots c s = [] /\ unalloc_slots c s = [] /\ thread_slots c s t = [])).
Proof.
  intros c s t l I H. unfold thread_slots. rewrite H. simpl. rewrite H. split.
  - intros (s' & p & G). destruct (add_node_oom_shape _ _ _ _ _ _ G) as (_ & _ & Ef & Ec & Ht).
    split; [unfold shared_slots; rewrite Ef; reflexivity|].
    split; [apply unalloc_slots_nil; auto|]. apply holds_nothing_slots. exact Ht.
  - intros (E1 & E2 & E3).
    destruct (add_node_oom_when c s t l) as (s' & G).
    + apply (shared_slots_nil c); auto.
    + apply (unalloc_slots_nil c); auto.
    + eapply slots_holds_nothing; eauto.
    + eauto.
Qed.

(** after a failed `add_node` every free slot is parked with another thread; the failed call
    changes no slot *)
Theorem oom_only_parked : forall c s t s' p, AInv c s ->
  step c good s (AAlloc t) = Some (s', OAlloc None p) ->
  p = POom /\ sl s' = sl s /\
  forall id, In id (free_slots c s) -> exists u, u <> t /\ In id (thread_slots c s u).
Proof.
  intros c s t s' p I G.
  assert (exists l, nth_error (th s) t = Some l) as (l & H).
  { simpl in G. destruct (nth_error (th s) t); [eauto | discriminate]. }
  destruct (proj1 (oom_iff c s t l I H) (ex_intro _ s' (ex_intro _ p G))) as (E1 & E2 & E3).
  simpl in G. rewrite H in G. destruct (add_node_oom_shape _ _ _ _ _ _ G) as (Ep & Esl & _).
  split; auto. split; auto. intros id Hi. unfold free_slots in Hi. rewrite E1, E2 in Hi.
  rewrite app_nil_r in Hi. simpl in Hi. apply in_app_or in Hi.
  assert (forall u lu, nth_error (th s) u = Some lu -> In id (lchain c (sl s) lu ++ lrange c lu) ->
          u <> t /\ In id (thread_slots c s u)) as Hu.
  { intros u lu Eu Hin. split.
    - intro; subst u. unfold thread_slots in E3. rewrite Eu in E3. rewrite E3 in Hin. contradiction.
    - unfold thread_slots. rewrite Eu. exact Hin. }
  destruct Hi as [Hi | Hi].
  - destruct (in_flat_map_nth _ _ _ _ Hi) as (u & lu & Eu & Hin). exists u.
    apply (Hu u lu Eu). apply in_or_app. left; auto.
  - destruct (in_flat_map_nth _ _ _ _ Hi) as (u & lu & Eu & Hin). exists u.
    apply (Hu u lu Eu). apply in_or_app. right; auto.
Qed.

(** when no other thread holds a slot: out of memory iff all capacity slots hold a node *)
Theorem oom_single : forall c s t l, AInv c s -> nth_error (th s) t = Some l -> others_idle_p c s t ->
  ((exists s' p, step c good s (AAlloc t) = Some (s', OAlloc None p)) <-> nlive c s = N.to_nat (cap c)).
Proof.
  intros c s t l I H Ho. rewrite (oom_iff c s t l I H).
  pose proof (free_count c s I) as F. rewrite (free_slots_single c s t l H Ho) in F.
  unfold thread_slots. rewrite H. rewrite !app_length in F. split.
  - intros (E1 & E2 & E3). apply app_eq_nil in E3. destruct E3 as [E3 E4].
    rewrite E1, E2, E3, E4 in F. simpl in F. lia.
  - intros E. assert (forall (x : list N), length x = 0%nat -> x = []) as Z by (destruct x; simpl; auto; discriminate).
    split; [apply Z; lia|]. split; [apply Z; lia|].
    rewrite (Z (lchain c (sl s) l)) by lia. rewrite (Z (lrange c l)) by lia. reflexivity.
Qed.

(** ** the capacity probe: in a state where no other thread holds a slot, thread [t] can create
    exactly  capacity - #live  nodes before OutOfMemory *)

Fixpoint allocs (c : cfg) (s : st) (t : nat) (n : nat) : option (st * list N) :=
  match n with
  | O => Some (s, [])
  | S k =>
    match step c good s (AAlloc t) with
    | Some (s1, OAlloc (Some id) _) =>
      match allocs c s1 t k with Some (s2, ids) => Some (s2, id :: ids) | None => None end
    | _ => None
    end
  end.

Lemma add_node_others : forall c s t l s' o u,
  add_node c good s t l = Some (s', o) -> u <> t -> nth_error (th s') u = nth_error (th s) u.
Proof.
  intros c s t l s' o u H Hu. destruct (add_node_frame _ _ _ _ _ _ H) as (_ & _ & l' & _ & Eth & _).
  rewrite Eth. apply nth_error_upd_other. auto.
Qed.

Lemma alloc_nlive : forall c s t s' id p, AInv c s ->
  step c good s (AAlloc t) = Some (s', OAlloc (Some id) p) -> nlive c s' = S (nlive c s).
Proof.
  intros c s t s' id p I H. destruct (alloc_safe _ _ _ _ _ _ I H) as (Hr & _ & Hnl & _).
  simpl in H. destruct (nth_error (th s) t) as [l|] eqn:E; [|discriminate].
  destruct (add_node_shape _ _ _ _ _ _ _ H) as (Esl & _).
  unfold nlive, live_slots. rewrite Esl. apply nlive_set_node; auto.
  intro En. apply Hnl. apply in_live_slots. auto.
Qed.

Theorem capacity_probe : forall c k s t l, AInv c s -> nth_error (th s) t = Some l -> others_idle_p c s t ->
  (nlive c s + k = N.to_nat (cap c))%nat ->
  exists s' ids, allocs c s t k = Some (s', ids) /\ length ids = k /\
    AInv c s' /\ nlive c s' = N.to_nat (cap c) /\
    exists s'', step c good s' (AAlloc t) = Some (s'', OAlloc None POom).
Proof.
  intros c k. induction k; intros s t l I H Ho Hk.
  - exists s, []. simpl. repeat split; auto; [lia|].
    destruct (proj2 (oom_single c s t l I H Ho)) as (s'' & p & G); [lia|].
    destruct (oom_only_parked _ _ _ _ _ I G) as (Ep & _). subst p. eauto.
  - destruct (add_node_total c s t l I H) as (s1 & [id|] & p & G0).
    + assert (step c good s (AAlloc t) = Some (s1, OAlloc (Some id) p)) as G by (simpl; rewrite H; exact G0).
      pose proof (alloc_safe _ _ _ _ _ _ I G) as (_ & _ & _ & _ & _ & I1).
      pose proof (alloc_nlive _ _ _ _ _ _ I G) as N1.
      destruct (add_node_frame _ _ _ _ _ _ G0) as (_ & _ & l1 & _ & Eth & _).
      assert (nth_error (th s1) t = Some l1) as H1 by (rewrite Eth; eapply nth_error_upd_same; eauto).
      assert (others_idle_p c s1 t) as Ho1.
      { intros u lu Hu Eu. rewrite Eth, nth_error_upd_other in Eu by auto. eapply Ho; eauto. }
      destruct (IHk s1 t l1 I1 H1 Ho1) as (s' & ids' & A & L & I' & N' & Oom); [lia|].
      exists s', (id :: ids'). cbn [allocs]. rewrite G, A. simpl. repeat split; auto.
    + exfalso. assert (nlive c s = N.to_nat (cap c)); [|lia].
      apply (proj1 (oom_single c s t l I H Ho)). exists s1, p. simpl. rewrite H. exact G0.
Qed.

(** ** a slot that holds a node is not touched until it is freed *)

Lemma step_slots : forall c s a s' o, step c good s a = Some (s', o) ->
  match a with
  | AAlloc _ => match o with OAlloc (Some id) _ => sl s' = sset (sl s) id SNode | _ => sl s' = sl s end
  | AFree _ id => sget (sl s) id = SNode /\ exists nx, sl s' = sset (sl s) id (SFree nx)
  | ADropGuard t =>
    sl s' = sl s \/
    exists l, nth_error (th s) t = Some l /\ is_this (l_cur l) = true /\ in_chunk c (l_init l) = true /\
      sl s' = link_range c (sl s) (l_init l) (N.to_nat (chunk_end c (l_init l) - l_init l)) (l_next l)
  | _ => sl s' = sl s
  end.
Proof.
  intros c s a s' o H. destruct a; simpl in H;
    try (destruct (nth_error (th s) t) as [l|] eqn:E; [|discriminate]).
  - inversion H; reflexivity.
  - unfold prepare in H. destruct (is_none (l_cur l)); inversion H; reflexivity.
  - destruct (l_guard l && is_this (l_cur l)) eqn:G; [|discriminate]. apply andb_prop in G.
    unfold drop_guard in H. cbn [v_tail_zero good] in H.
    destruct (negb (l_next l =? 0) || in_chunk c (l_init l) || negb (l_delta l =? 0)%Z);
      [|inversion H; left; reflexivity].
    destruct (in_chunk c (l_init l)) eqn:Hin; inversion H; [right; exists l; tauto | left; reflexivity].
  - match type of H with (if ?b then _ else _) = _ => destruct b end; inversion H; reflexivity.
  - destruct (is_none (l_cur l)); inversion H; reflexivity.
  - destruct (is_other (l_cur l)); inversion H; reflexivity.
  - destruct (add_node_frame _ _ _ _ _ _ H) as ([id|] & p & _ & -> & _).
    + apply (add_node_shape _ _ _ _ _ _ _ H).
    + apply (add_node_oom_shape _ _ _ _ _ _ H).
  - destruct (sget (sl s) id) eqn:G; cbn [is_node] in H; try discriminate. split; [reflexivity|].
    unfold free_slot in H. cbn [v_ho_drift v_no_reset good] in H.
    destruct (is_this (l_cur l)).
    + destruct (- Z.of_N (chunk c) <? l_delta l - 1)%Z; inversion H; simpl; eauto.
    + destruct (s_free (sh s)); inversion H; simpl; eauto.
  - destruct (is_this (l_cur l) && negb (l_guard l)); [|discriminate].
    unfold gc_flush in H. destruct (negb (l_next l =? 0)); inversion H; reflexivity.
Qed.

Lemma step_obs_alloc : forall c s a s' r p, step c good s a = Some (s', OAlloc r p) -> exists t, a = AAlloc t.
Proof.
  intros c s a s' r p H. destruct a; simpl in H; eauto; exfalso;
    try (destruct (nth_error (th s) t) as [l|]; [|discriminate]);
    unfold prepare, drop_guard, free_slot, gc_flush in H; split_ifs H; discriminate.
Qed.

Lemma step_keeps_node : forall c s a s' o id, AInv c s ->
  sget (sl s) id = SNode -> step c good s a = Some (s', o) ->
  (forall t, a <> AFree t id) ->
  sget (sl s') id = SNode /\ (forall p, o <> OAlloc (Some id) p).
Proof.
  intros c s a s' o id I Hn H Hnf.
  assert (~ In id (free_slots c s)) as Hni.
  { destruct I as (fs & ls & I). rewrite <- (wfree_free_slots _ _ _ _ I).
    apply (w_live _ _ _ _ I id (w_nodes _ _ _ _ I id Hn)); auto. }
  assert (forall t p, a = AAlloc t -> o <> OAlloc (Some id) p) as Hal.
  { intros t p -> ->. apply Hni. apply (alloc_safe _ _ _ _ _ _ I H). }
  split.
  - pose proof (step_slots _ _ _ _ _ H) as E. destruct a; try (rewrite E; exact Hn).
    + destruct E as [E | (l & El & Et & Hin & E)]; rewrite E; [exact Hn|].
      rewrite link_range_other; auto. intro Hi. apply Hni.
      unfold free_slots, range_slots. rewrite !in_app_iff. right; right; left.
      eapply nth_in_flat_map; eauto. unfold lrange. rewrite Et, Hin. exact Hi.
    + destruct o as [| | [id'|] p | | |]; rewrite E; auto.
      rewrite sget_sset_other; auto. intro; subst id'. apply (Hal t p); reflexivity.
    + destruct E as (_ & nx & E). rewrite E, sget_sset_other; auto.
      intro; subst id0. apply (Hnf t). reflexivity.
  - intros p Eo. subst o. destruct (step_obs_alloc _ _ _ _ _ _ H) as (t & Ea). apply (Hal t p Ea). reflexivity.
Qed.

Fixpoint frees_slot (sched : list act) (id : N) : bool :=
  match sched with
  | [] => false
  | AFree _ j :: r => (j =? id) || frees_slot r id
  | _ :: r => frees_slot r id
  end.

(** never handed out twice: while a slot holds a node and no thread frees it, no `add_node` of
    any thread returns it, under every schedule *)
Theorem no_double_handout : forall c sched s s' os id, AInv c s ->
  In id (live_slots c s) -> run c good s sched = Some (s', os) -> frees_slot sched id = false ->
  In id (live_slots c s') /\ forall p, ~ In (OAlloc (Some id) p) os.
Proof.
  intros c sched. induction sched as [|a r IH]; intros s s' os id I Hl H Hf; simpl in H.
  - inversion H; subst. split; auto.
  - destruct (step c good s a) as [[s1 o]|] eqn:E; [|discriminate].
    destruct (run c good s1 r) as [[s2 os2]|] eqn:E2; [|discriminate]. inversion H; subst.
    apply in_live_slots in Hl. destruct Hl as [Hr Hn].
    assert (forall t, a <> AFree t id) as Hnf.
    { intros t Ea. subst a. simpl in Hf. rewrite N.eqb_refl in Hf. discriminate. }
    destruct (step_keeps_node _ _ _ _ _ _ I Hn E Hnf) as (Hn1 & Ho).
    assert (frees_slot r id = false) as Hf'.
    { destruct a; simpl in Hf; auto. apply orb_false_iff in Hf. tauto. }
    destruct (IH s1 s' os2 id (step_inv _ _ _ _ _ I E)) as (Hl' & Hos); auto.
    { apply in_live_slots. auto. }
    split; auto. intros p [Eo | Hi]; [apply (Ho p); auto | apply (Hos p); auto].
Qed.

(** ** small managers (capacity <= chunk size: a chunk is never pre-allocated, as in the
    correspondence runs with few slots): `add_node` never parks a slot with a thread *)

Theorem alloc_no_hoard_scarce : forall c s t l s' o,
  cap c <= chunk c -> nth_error (th s) t = Some l -> step c good s (AAlloc t) = Some (s', o) ->
  (forall u, u <> t -> nth_error (th s') u = nth_error (th s) u) /\
  exists l', nth_error (th s') t = Some l' /\ l_cur l' = l_cur l /\
             (holds_nothing c l -> holds_nothing c l').
Proof.
  intros c s t l s' o Hc H G. simpl in G. rewrite H in G. split.
  - intros u Hu. eapply add_node_others; eauto.
  - destruct (add_node_frame _ _ _ _ _ _ G) as (_ & _ & l' & _ & Eth & Ec & Hk).
    exists l'. split; [rewrite Eth; eapply nth_error_upd_same; eauto|]. split; [exact Ec|].
    intros Hh Et. rewrite Ec in Et. destruct (Hh Et) as [A B].
    destruct (Hk (proj2 (N.ltb_ge _ _) (N.le_trans _ _ _ Hc (N.le_add_l _ _))) A B) as [A' B'].
    rewrite A', B'. auto.
Qed.
