(** * ALLOC — every action of every thread preserves the invariant (coq/Mgr/AllocInv.v) *)

From Coq Require Import List NArith ZArith PArith Bool Arith Lia Permutation FMapPositive.
From OxiVerif Require Import Mgr.Alloc Mgr.AllocBase Mgr.AllocInv.
Import ListNotations.
Local Open Scope N_scope.

Arguments N.add : simpl never.
Arguments N.sub : simpl never.
Arguments N.mul : simpl never.
Arguments N.div : simpl never.
Arguments N.modulo : simpl never.

Lemma perm_of_count : forall l1 l2 : list N,
  (forall z, count_occ N.eq_dec l1 z = count_occ N.eq_dec l2 z) -> Permutation l1 l2.
Proof. intros. apply (Permutation_count_occ N.eq_dec). assumption. Qed.

Lemma count_of_perm : forall (l1 l2 : list N) z,
  Permutation l1 l2 -> count_occ N.eq_dec l1 z = count_occ N.eq_dec l2 z.
Proof. intros. apply (Permutation_count_occ N.eq_dec). assumption. Qed.

Lemma nodup_count_le : forall (l : list N) z, NoDup l -> (count_occ N.eq_dec l z <= 1)%nat.
Proof. intros. apply (NoDup_count_occ N.eq_dec). assumption. Qed.

Lemma in_count_pos : forall (l : list N) z, In z l -> (count_occ N.eq_dec l z > 0)%nat.
Proof. intros. apply (count_occ_In N.eq_dec). assumption. Qed.

Lemma count_pos_in : forall (l : list N) z, (count_occ N.eq_dec l z > 0)%nat -> In z l.
Proof. intros. apply (count_occ_In N.eq_dec). assumption. Qed.

Lemma notin_count_zero : forall (l : list N) z, ~ In z l -> count_occ N.eq_dec l z = 0%nat.
Proof. intros. apply (count_occ_not_In N.eq_dec). assumption. Qed.

Lemma count_zero_notin : forall (l : list N) z, count_occ N.eq_dec l z = 0%nat -> ~ In z l.
Proof. intros. apply (count_occ_not_In N.eq_dec). assumption. Qed.

Ltac norm_lists :=
  repeat (rewrite ?concat_app, ?flat_map_app, ?count_occ_app in *;
          cbn [count_occ concat flat_map app] in *).

(** [count_at z]: all facts about membership of [z] become facts about counts *)
Ltac count_at z :=
  repeat match goal with
         | H : NoDup _ |- _ => apply (fun l => nodup_count_le l z) in H
         | H : In z _ |- _ => apply in_count_pos in H
         | H : ~ In z _ |- _ => apply notin_count_zero in H
         | H : Permutation _ _ |- _ => apply (fun a b => count_of_perm a b z) in H
         end;
  norm_lists;
  repeat match goal with
         | |- context [N.eq_dec ?a ?b] => destruct (N.eq_dec a b)
         | H : context [N.eq_dec ?a ?b] |- _ => destruct (N.eq_dec a b)
         end.

Ltac perm_count := apply perm_of_count; let z := fresh "z" in intro z; count_at z; try lia.

Ltac notin_by_count z := apply count_zero_notin; count_at z; try lia.
Ltac in_by_count z := apply count_pos_in; count_at z; try lia.

Lemma sset_frame : forall (m : smap) id s (L : list N),
  ~ In id L -> forall j, In j L -> sget (sset m id s) j = sget m j.
Proof. intros. apply sget_sset_other. intro; subst. contradiction. Qed.

(** ** a thread and its witnesses *)

Lemma inv_thread_split : forall c s fs ls t l,
  AInvW c s fs ls -> nth_error (th s) t = Some l ->
  exists a b la x lb, th s = a ++ l :: b /\ ls = la ++ x :: lb /\ length a = t /\ length a = length la.
Proof.
  intros c s fs ls t l I H.
  destruct (Forall2_split_nth _ _ _ _ _ _ _ (w_lchains _ _ _ _ I) H)
    as (a & b & la & x & lb & E1 & E2 & L1 & L2).
  exists a, b, la, x, lb. repeat split; auto. congruence.
Qed.

Ltac thread_start I H :=
  let a := fresh "a" in let b := fresh "b" in let la := fresh "la" in let x := fresh "x" in
  let lb := fresh "lb" in
  destruct (inv_thread_split _ _ _ _ _ _ I H) as (a & b & la & x & lb & Eth & Els & Elen & L).

Lemma Forall2_mid : forall (A B : Type) (P : A -> B -> Prop) a b ka kb x y,
  Forall2 P a ka -> P x y -> Forall2 P b kb -> Forall2 P (a ++ x :: b) (ka ++ y :: kb).
Proof. intros. apply Forall2_app; auto. Qed.

Lemma Forall_mid : forall (A : Type) (P : A -> Prop) a b x,
  Forall P a -> P x -> Forall P b -> Forall P (a ++ x :: b).
Proof. intros. apply Forall_app. split; auto. Qed.

Lemma sumd_mid : forall a l b, sumd (a ++ l :: b) = (sumd a + l_delta l + sumd b)%Z.
Proof. intros. rewrite sumd_app. simpl. lia. Qed.

Lemma upd_mid : forall (A : Type) (a : list A) l b l', upd (a ++ l :: b) (length a) l' = a ++ l' :: b.
Proof. induction a; simpl; intros; auto. f_equal. auto. Qed.

Lemma nth_error_mid : forall (A : Type) (a : list A) l b, nth_error (a ++ l :: b) (length a) = Some l.
Proof. induction a; simpl; intros; auto. Qed.

Lemma inv_mid : forall c sh0 m a l b fs la x lb,
  AInvW c (mkSt sh0 m (a ++ l :: b)) fs (la ++ x :: lb) -> length a = length la ->
  lchainP m l x /\ local_ok c sh0 l.
Proof.
  intros c sh0 m a l b fs la x lb I L. split.
  - apply (Forall2_mid_inv _ _ _ _ _ _ _ _ _ (w_lchains _ _ _ _ I) L).
  - pose proof (w_locals _ _ _ _ I) as W. simpl in W. rewrite Forall_forall in W.
    apply W. apply in_or_app. right. left. reflexivity.
Qed.

Lemma wfree_mid : forall c sh0 m a l b fs la x lb,
  wfree c (mkSt sh0 m (a ++ l :: b)) fs (la ++ x :: lb) =
  concat fs ++ (concat la ++ x ++ concat lb) ++
  (flat_map (lrange c) a ++ lrange c l ++ flat_map (lrange c) b) ++ unalloc c (s_alloc sh0).
Proof. intros. unfold wfree. simpl. rewrite concat_app, flat_map_app. reflexivity. Qed.

Lemma thread_shape : forall c sh0 m a l b fs la x lb sh' m' l' fs' x',
  AInvW c (mkSt sh0 m (a ++ l :: b)) fs (la ++ x :: lb) -> length a = length la ->
  s_alloc sh0 <= s_alloc sh' -> s_alloc sh' <= cap c ->
  Forall (fun h => h <> 0) (s_free sh') -> Forall2 (Chain m') (s_free sh') fs' ->
  lchainP m' l' x' -> local_ok c sh' l' ->
  (forall j, In j (concat la ++ concat lb) -> sget m' j = sget m j) ->
  Shape c (mkSt sh' m' (a ++ l' :: b)) fs' (la ++ x' :: lb).
Proof.
  intros c sh0 m a l b fs la x lb sh' m' l' fs' x' I L Ha Hc Hh Hs Hl Hok E.
  destruct (Forall2_mid_inv _ _ _ _ _ _ _ _ _ (w_lchains _ _ _ _ I) L) as (Fa & _ & Fb).
  pose proof (w_locals _ _ _ _ I) as W. simpl in W. apply Forall_app in W. destruct W as [Wa Wb].
  inversion Wb as [|? ? _ Wb']; subst.
  repeat split; simpl; auto.
  - apply Forall2_mid; auto; eapply lchains_ext; eauto; intros; apply E; apply in_or_app; auto.
  - apply Forall_mid; auto; eapply locals_mono; eauto.
Qed.

Lemma lrange_not_this : forall c l, is_this (l_cur l) = false -> lrange c l = [].
Proof. intros. unfold lrange. rewrite H. reflexivity. Qed.

Lemma lrange_not_chunk : forall c l, in_chunk c (l_init l) = false -> lrange c l = [].
Proof. intros. unfold lrange. rewrite H. rewrite andb_false_r. reflexivity. Qed.

Lemma this_is : forall cu, is_this cu = true -> cu = CThis.
Proof. destruct cu; simpl; congruence. Qed.

Lemma not_this_is : forall cu, is_this cu = false -> cu <> CThis.
Proof. destruct cu; simpl; congruence. Qed.

Lemma inv_local_change : forall c sh0 m a l b fs la x lb l',
  AInvW c (mkSt sh0 m (a ++ l :: b)) fs (la ++ x :: lb) -> length a = length la ->
  lchainP m l' x -> lrange c l' = lrange c l -> l_delta l' = l_delta l -> local_ok c sh0 l' ->
  AInv c (mkSt sh0 m (a ++ l' :: b)).
Proof.
  intros c sh0 m a l b fs la x lb l' I L Hx Hr Hd Hok. exists fs, (la ++ x :: lb).
  eapply inv_move_generic; [exact I | | simpl; tauto | | ].
  - rewrite !wfree_mid, Hr. reflexivity.
  - eapply thread_shape; [exact I | exact L | ..]; simpl; auto using N.le_refl; try (destruct I; assumption).
  - simpl. rewrite !sumd_mid, Hd. reflexivity.
Qed.

(** a thread that is not bound to this store owns no slots *)
Lemma unbound_change_inv : forall c s t l l',
  AInv c s -> nth_error (th s) t = Some l -> is_this (l_cur l) = false ->
  (l_guard l' = true -> l_cur l' = CThis) -> l_delta l' = l_delta l ->
  (is_this (l_cur l') = true -> l_next l' = 0 /\ in_chunk c (l_init l') = false) ->
  AInv c (set_th s t l').
Proof.
  intros c s t l l' (fs & ls & I) H Et Hg Hd Hn.
  thread_start I H. destruct s as [sh0 m th0]. simpl in *. subst th0 ls t.
  destruct (inv_mid _ _ _ _ _ _ _ _ _ _ I L) as [Px (_ & W2 & _)].
  unfold lchainP in Px. rewrite Et in Px. subst x.
  unfold set_th. simpl. rewrite upd_mid.
  eapply (inv_local_change c sh0 m a l); eauto.
  - unfold lchainP. destruct (is_this (l_cur l')); [|reflexivity].
    rewrite (proj1 (Hn eq_refl)). constructor.
  - rewrite (lrange_not_this c l Et). unfold lrange.
    destruct (is_this (l_cur l')); [|reflexivity]. rewrite (proj2 (Hn eq_refl)). reflexivity.
  - split; [exact Hg|]. split.
    + intros _. rewrite Hd. apply W2. apply not_this_is. exact Et.
    + intros E1 E2. rewrite E1 in Hn. rewrite (proj2 (Hn eq_refl)) in E2. discriminate.
Qed.

Lemma spawn_inv : forall c s, AInv c s -> AInv c (mkSt (sh s) (sl s) (th s ++ [lfresh])).
Proof.
  intros c s (fs & ls & I). exists fs, (ls ++ [[]]).
  destruct (inv_shape _ _ _ _ I) as (A & H & SC & LC & W).
  eapply inv_move_generic; [exact I | | simpl; tauto | | ]; simpl.
  - unfold wfree. simpl. rewrite concat_app, flat_map_app. simpl. rewrite !app_nil_r. reflexivity.
  - repeat split; simpl; auto.
    + apply Forall2_app; [exact LC|]. constructor; [reflexivity | constructor].
    + apply Forall_app. split; [exact W|]. constructor; [|constructor].
      repeat split; simpl; intros; auto; congruence.
  - rewrite sumd_app. simpl. lia.
Qed.

(** ** `add_node`: the thread-local list and the pre-allocated range *)

Lemma alloc_local_list_inv : forall c sh0 m a l b fs la x lb nx,
  AInvW c (mkSt sh0 m (a ++ l :: b)) fs (la ++ x :: lb) -> length a = length la ->
  is_this (l_cur l) = true -> l_next l <> 0 -> sget m (l_next l) = SFree nx ->
  AInv c (mkSt sh0 (sset m (l_next l) SNode)
               (a ++ mkL (l_cur l) (l_guard l) nx (l_init l) (l_delta l + 1)%Z :: b)).
Proof.
  intros c sh0 m a l b fs la x lb nx I L Et Hn Hg.
  destruct (inv_mid _ _ _ _ _ _ _ _ _ _ I L) as [Px (W1 & W2 & W3)].
  unfold lchainP in Px. rewrite Et in Px.
  destruct (Chain_head _ _ _ Px Hn) as (nx0 & x' & G & Ex & Cx). rewrite Hg in G. inversion G; subst nx0 x.
  exists fs, (la ++ x' :: lb). eapply inv_alloc_generic with (id := l_next l); [exact I | | reflexivity | | ].
  - rewrite !wfree_mid. unfold lrange. cbn [l_cur l_init s_alloc]. perm_count.
  - eapply thread_shape; [exact I | exact L | ..]; simpl; auto using N.le_refl; try (destruct I; assumption).
    + unfold lchainP. simpl. rewrite Et. exact Cx.
    + split; [|split]; simpl; auto. intros E. elim E. apply this_is. exact Et.
  - simpl. rewrite !sumd_mid. simpl. lia.
Qed.

Lemma lrange_step : forall c l g nx d,
  1 <= chunk c -> is_this (l_cur l) = true -> in_chunk c (l_init l) = true ->
  lrange c l = (l_init l + term c) :: lrange c (mkL (l_cur l) g nx (l_init l + 1) d).
Proof.
  intros c l g nx d Hc Et Hin. unfold lrange. simpl. rewrite Et, Hin. simpl.
  destruct (chunk_step c (l_init l) Hc) as (A & B & C & D).
  destruct (in_chunk c (l_init l + 1)) eqn:E.
  - rewrite (C eq_refl).
    replace (N.to_nat (chunk_end c (l_init l) - l_init l))
      with (S (N.to_nat (chunk_end c (l_init l) - (l_init l + 1)))) by lia.
    reflexivity.
  - specialize (D eq_refl).
    replace (N.to_nat (chunk_end c (l_init l) - l_init l)) with 1%nat by lia. reflexivity.
Qed.

Lemma alloc_local_range_inv : forall c sh0 m a l b fs la x lb,
  AInvW c (mkSt sh0 m (a ++ l :: b)) fs (la ++ x :: lb) -> length a = length la ->
  is_this (l_cur l) = true -> in_chunk c (l_init l) = true ->
  AInv c (mkSt sh0 (sset m (l_init l + term c) SNode)
               (a ++ mkL (l_cur l) (l_guard l) (l_next l) (l_init l + 1) (l_delta l + 1)%Z :: b)).
Proof.
  intros c sh0 m a l b fs la x lb I L Et Hin.
  destruct (inv_mid _ _ _ _ _ _ _ _ _ _ I L) as [Px (W1 & W2 & W3)].
  pose proof (w_chunk _ _ _ _ I) as Hc. exists fs, (la ++ x :: lb).
  eapply inv_alloc_generic with (id := l_init l + term c); [exact I | | reflexivity | | ].
  - rewrite !wfree_mid.
    rewrite (lrange_step c l (l_guard l) (l_next l) (l_delta l + 1)%Z Hc Et Hin). perm_count.
  - eapply thread_shape; [exact I | exact L | ..]; simpl; auto using N.le_refl; try (destruct I; assumption).
    split; [|split]; simpl; auto.
    + intros E. elim E. apply this_is. exact Et.
    + intros E1 E2. destruct (chunk_step c (l_init l) Hc) as (_ & _ & C & _). rewrite (C E2). auto.
  - simpl. rewrite !sumd_mid. simpl. lia.
Qed.

(** ** `get_slot_from_shared` *)

Lemma unalloc_step : forall c i, i < cap c -> unalloc c i = (i + term c) :: unalloc c (i + 1).
Proof.
  intros. unfold unalloc.
  replace (N.to_nat (cap c - i)) with (S (N.to_nat (cap c - (i + 1)))) by lia. reflexivity.
Qed.

Lemma unalloc_split : forall c i e, i <= e -> e <= cap c ->
  unalloc c i = range_ids c i (N.to_nat (e - i)) ++ unalloc c e.
Proof.
  intros. unfold unalloc.
  replace (N.to_nat (cap c - i)) with (N.to_nat (e - i) + N.to_nat (cap c - e))%nat by lia.
  rewrite range_ids_app. f_equal. f_equal. lia.
Qed.

Lemma unalloc_full : forall c i, cap c <= i -> unalloc c i = [].
Proof. intros. unfold unalloc. replace (N.to_nat (cap c - i)) with 0%nat by lia. reflexivity. Qed.

Lemma inv_shared_head : forall c id rest al cnt g m thr fs ls nx,
  AInvW c (mkSt (mkSh (id :: rest) al cnt g) m thr) fs ls -> sget m id = SFree nx ->
  exists f1 frest, fs = (id :: f1) :: frest /\ Chain m nx f1 /\ Forall2 (Chain m) rest frest /\
                   Forall (fun h => h <> 0) rest.
Proof.
  intros c id rest al cnt g m thr fs ls nx I Hg.
  pose proof (w_schains _ _ _ _ I) as SC. simpl in SC. inversion SC as [|? f1 ? frest C1 Cr]; subst.
  pose proof (w_heads _ _ _ _ I) as HH. simpl in HH. inversion HH as [|? ? Hid Hrest]; subst.
  destruct (Chain_head _ _ _ C1 Hid) as (nx0 & f1' & G & Ef & Cf). rewrite Hg in G. inversion G; subst.
  exists f1', frest. auto.
Qed.

(** the thread pops the first shared list and keeps its rest *)
Lemma gsfs_take_inv : forall c m a l b fs la x lb id rest al cnt g cnt' g' nx d1,
  AInvW c (mkSt (mkSh (id :: rest) al cnt g) m (a ++ l :: b)) fs (la ++ x :: lb) -> length a = length la ->
  is_this (l_cur l) = true -> l_next l = 0 -> sget m id = SFree nx ->
  (cnt' + d1 = cnt + l_delta l + 1)%Z ->
  AInv c (mkSt (mkSh rest al cnt' g') (sset m id SNode)
               (a ++ mkL (l_cur l) (l_guard l) nx (l_init l) d1 :: b)).
Proof.
  intros c m a l b fs la x lb id rest al cnt g cnt' g' nx d1 I L Et Hn Hg Hcnt.
  destruct (inv_mid _ _ _ _ _ _ _ _ _ _ I L) as [Px (W1 & W2 & W3)].
  destruct (inv_shared_head _ _ _ _ _ _ _ _ _ _ _ I Hg) as (f1 & frest & -> & Cf & Cr & Hrest).
  unfold lchainP in Px. rewrite Et, Hn in Px. apply Chain_zero in Px. subst x.
  exists frest, (la ++ f1 :: lb). eapply inv_alloc_generic with (id := id); [exact I | | reflexivity | | ].
  - rewrite !wfree_mid. unfold lrange. cbn [l_cur l_init s_alloc]. perm_count.
  - eapply thread_shape; [exact I | exact L | ..]; simpl; auto using N.le_refl; try (destruct I; assumption).
    + unfold lchainP. simpl. rewrite Et. exact Cf.
    + split; [|split]; simpl; auto. intros E. elim E. apply this_is. exact Et.
  - simpl. rewrite !sumd_mid. simpl. lia.
Qed.

(** a slot is popped from the first shared list, the rest of the list goes back *)
Lemma gsfs_pop_inv : forall c m a l b fs la x lb id rest al cnt g cnt' g' nx d1,
  AInvW c (mkSt (mkSh (id :: rest) al cnt g) m (a ++ l :: b)) fs (la ++ x :: lb) -> length a = length la ->
  sget m id = SFree nx ->
  (cnt' + d1 = cnt + l_delta l + 1)%Z -> (l_cur l <> CThis -> d1 = 0%Z) ->
  AInv c (mkSt (mkSh (if nx =? 0 then rest else nx :: rest) al cnt' g') (sset m id SNode)
               (a ++ mkL (l_cur l) (l_guard l) (l_next l) (l_init l) d1 :: b)).
Proof.
  intros c m a l b fs la x lb id rest al cnt g cnt' g' nx d1 I L Hg Hcnt Hd1.
  destruct (inv_mid _ _ _ _ _ _ _ _ _ _ I L) as [Px (W1 & W2 & W3)].
  destruct (inv_shared_head _ _ _ _ _ _ _ _ _ _ _ I Hg) as (f1 & frest & -> & Cf & Cr & Hrest).
  exists (if nx =? 0 then frest else f1 :: frest), (la ++ x :: lb).
  eapply inv_alloc_generic with (id := id); [exact I | | reflexivity | | ].
  - rewrite !wfree_mid. unfold lrange. cbn [l_cur l_init s_alloc].
    destruct (N.eqb_spec nx 0) as [E|E]; [subst nx; rewrite (Chain_zero _ _ Cf)|]; perm_count.
  - eapply thread_shape; [exact I | exact L | ..]; simpl; auto using N.le_refl; try (destruct I; assumption).
    + destruct (N.eqb_spec nx 0); auto.
    + destruct (N.eqb_spec nx 0); auto.
    + split; [|split]; simpl; auto.
  - simpl. rewrite !sumd_mid. simpl. destruct (nx =? 0); simpl; lia.
Qed.

(** a single never-used slot *)
Lemma gsfs_bump_inv : forall c m a l b fs la x lb al cnt g cnt' g' d1,
  AInvW c (mkSt (mkSh [] al cnt g) m (a ++ l :: b)) fs (la ++ x :: lb) -> length a = length la ->
  al < cap c ->
  (cnt' + d1 = cnt + l_delta l + 1)%Z -> (l_cur l <> CThis -> d1 = 0%Z) ->
  AInv c (mkSt (mkSh [] (al + 1) cnt' g') (sset m (al + term c) SNode)
               (a ++ mkL (l_cur l) (l_guard l) (l_next l) (l_init l) d1 :: b)).
Proof.
  intros c m a l b fs la x lb al cnt g cnt' g' d1 I L Hal Hcnt Hd1.
  destruct (inv_mid _ _ _ _ _ _ _ _ _ _ I L) as [Px (W1 & W2 & W3)].
  pose proof (w_schains _ _ _ _ I) as SC. simpl in SC. inversion SC; subst. exists [], (la ++ x :: lb).
  eapply inv_alloc_generic with (id := al + term c); [exact I | | reflexivity | | ].
  - rewrite !wfree_mid. unfold lrange. cbn [l_cur l_init s_alloc].
    rewrite (unalloc_step c al Hal). perm_count.
  - eapply thread_shape; [exact I | exact L | ..]; simpl; auto; try lia.
    split; [|split]; simpl in *; auto. intros E1 E2. specialize (W3 E1 E2). lia.
  - simpl. rewrite !sumd_mid. simpl. lia.
Qed.

(** a chunk is pre-allocated: its first slot is handed out, the rest becomes the thread's range *)
Lemma gsfs_chunk_inv : forall c m a l b fs la x lb al cnt g cnt' g' d1,
  AInvW c (mkSt (mkSh [] al cnt g) m (a ++ l :: b)) fs (la ++ x :: lb) -> length a = length la ->
  is_this (l_cur l) = true -> in_chunk c (l_init l) = false ->
  al + chunk c < cap c ->
  (cnt' + d1 = cnt + l_delta l + 1)%Z ->
  AInv c (mkSt (mkSh [] (chunk_end c al) cnt' g') (sset m (al + term c) SNode)
               (a ++ mkL (l_cur l) (l_guard l) (l_next l) (al + 1) d1 :: b)).
Proof.
  intros c m a l b fs la x lb al cnt g cnt' g' d1 I L Et Hin Hal Hcnt.
  destruct (inv_mid _ _ _ _ _ _ _ _ _ _ I L) as [Px (W1 & W2 & W3)].
  pose proof (w_chunk _ _ _ _ I) as Hc.
  set (l' := mkL (l_cur l) (l_guard l) (l_next l) (al + 1) d1).
  destruct (chunk_step c al Hc) as (A & B & C & D).
  pose proof (w_schains _ _ _ _ I) as SC. simpl in SC. inversion SC; subst.
  assert (unalloc c al = (al + term c) :: lrange c l' ++ unalloc c (chunk_end c al)) as EU.
  { rewrite (unalloc_step c al) by lia. f_equal.
    rewrite (unalloc_split c (al + 1) (chunk_end c al)) by lia. f_equal.
    unfold lrange, l'. simpl. rewrite Et. simpl.
    destruct (in_chunk c (al + 1)) eqn:E.
    - rewrite (C eq_refl). reflexivity.
    - rewrite <- (D eq_refl). replace (N.to_nat (al + 1 - (al + 1))) with 0%nat by lia. reflexivity. }
  exists [], (la ++ x :: lb).
  eapply inv_alloc_generic with (id := al + term c); [exact I | | reflexivity | | ].
  - rewrite !wfree_mid. cbn [s_alloc]. rewrite EU, (lrange_not_chunk c l Hin). perm_count.
  - eapply thread_shape; [exact I | exact L | ..]; simpl; auto; try lia.
    split; [|split]; simpl in *; auto.
    + intros E. elim E. apply this_is. exact Et.
    + intros E1 E2. rewrite (C E2). lia.
  - simpl. rewrite !sumd_mid. simpl. lia.
Qed.

(** out of memory: nothing changes but the counts *)
Lemma gsfs_oom_inv : forall c m a l b fs la x lb fr al cnt g cnt' g' d1,
  AInvW c (mkSt (mkSh fr al cnt g) m (a ++ l :: b)) fs (la ++ x :: lb) -> length a = length la ->
  (cnt' + d1 = cnt + l_delta l)%Z -> (l_cur l <> CThis -> d1 = 0%Z) ->
  AInv c (mkSt (mkSh fr al cnt' g') m
               (a ++ mkL (l_cur l) (l_guard l) (l_next l) (l_init l) d1 :: b)).
Proof.
  intros c m a l b fs la x lb fr al cnt g cnt' g' d1 I L Hcnt Hd1.
  destruct (inv_mid _ _ _ _ _ _ _ _ _ _ I L) as [Px (W1 & W2 & W3)]. exists fs, (la ++ x :: lb).
  eapply inv_move_generic; [exact I | | simpl; tauto | | ].
  - rewrite !wfree_mid. reflexivity.
  - eapply thread_shape; [exact I | exact L | ..]; simpl; auto using N.le_refl; try (destruct I; assumption).
    + split; [|split]; simpl in *; auto.
  - simpl. rewrite !sumd_mid. simpl. lia.
Qed.

Lemma gsfs_inv : forall c m a b fs la x lb sh0 cu gu nxl ini de d1 d s' o,
  AInvW c (mkSt sh0 m (a ++ mkL cu gu nxl ini de :: b)) fs (la ++ x :: lb) -> length a = length la ->
  (d1 + d = de + 1)%Z ->
  (is_this cu = true -> nxl = 0 /\ in_chunk c ini = false) ->
  (is_this cu = false -> d1 = de) ->
  get_slot_from_shared c good (mkSt sh0 m (a ++ mkL cu gu nxl ini de :: b)) (length a)
                       (mkL cu gu nxl ini d1) d = Some (s', o) ->
  AInv c s'.
Proof.
  intros c m a b fs la x lb sh0 cu gu nxl ini de d1 d s' o I L Hd Hthis Hnot G.
  set (l := mkL cu gu nxl ini de) in *.
  destruct (inv_mid _ _ _ _ _ _ _ _ _ _ I L) as [_ (_ & W2 & _)].
  assert (l_cur l <> CThis -> d1 = 0%Z) as Hd1.
  { intros E. rewrite Hnot; [exact (W2 E)|]. destruct (is_this cu) eqn:Et; auto. elim E. apply this_is. exact Et. }
  destruct sh0 as [fr al cnt g]. unfold get_slot_from_shared in G. cbn [v_oom_drift v_take_all v_cap_first good
    sh sl th s_free s_alloc s_count s_gc l_cur l_guard l_next l_init l_delta negb andb orb] in G.
  rewrite !upd_mid in G.
  destruct (is_this cu) eqn:Et.
  - destruct (Hthis eq_refl) as [Hn Hin]. subst nxl.
    destruct fr as [|id rest].
    + destruct (N.leb_spec (cap c) al) as [Hfull | Hroom].
      * (* out of memory *)
        assert ((al + chunk c <? cap c) = false) as E1 by (apply N.ltb_ge; lia).
        assert ((al <? cap c) = false) as E2 by (apply N.ltb_ge; lia).
        rewrite E1, E2 in G. inversion G; subst.
        eapply (gsfs_oom_inv c m a l b); eauto. simpl. lia.
      * destruct (al + chunk c <? cap c) eqn:E1.
        -- inversion G; subst.
           eapply (gsfs_chunk_inv c m a l b); eauto; [apply N.ltb_lt; auto | simpl; lia].
        -- assert ((al <? cap c) = true) as E2 by (apply N.ltb_lt; lia).
           rewrite E2 in G. inversion G; subst.
           eapply (gsfs_bump_inv c m a l b); eauto. simpl. lia.
    + cbn [andb] in G. destruct (sget m id) eqn:Eg; try discriminate.
      destruct (al + chunk c <? cap c) eqn:E1; inversion G; subst; rewrite ?upd_mid.
      * eapply (gsfs_take_inv c m a l b); eauto. simpl. lia.
      * eapply (gsfs_pop_inv c m a l b); eauto. simpl. lia.
  - rewrite (Hnot eq_refl) in *. assert (de = 0%Z) as Hde by (apply W2; apply not_this_is; exact Et).
    subst de.
    destruct fr as [|id rest].
    + destruct (N.leb_spec (cap c) al) as [Hfull | Hroom]; inversion G; subst.
      * eapply (gsfs_oom_inv c m a l b); eauto. simpl. lia.
      * eapply (gsfs_bump_inv c m a l b); eauto. simpl. lia.
    + cbn [andb] in G. destruct (sget m id) eqn:Eg; try discriminate. inversion G; subst; rewrite ?upd_mid.
      eapply (gsfs_pop_inv c m a l b); eauto. simpl. lia.
Qed.

Lemma add_node_inv : forall c s t l s' o,
  AInv c s -> nth_error (th s) t = Some l -> add_node c good s t l = Some (s', o) -> AInv c s'.
Proof.
  intros c s t l s' o (fs & ls & I) H G.
  thread_start I H. destruct s as [sh0 m th0]. simpl in *. subst th0 ls t.
  destruct l as [cu gu nxl ini de]. unfold add_node in G.
  cbn [sh sl th l_cur l_guard l_next l_init l_delta] in G.
  destruct (is_this cu) eqn:Et.
  - destruct (N.eqb_spec nxl 0) as [En | En]; cbn [negb] in G.
    + subst nxl. destruct (in_chunk c ini) eqn:Hin.
      * inversion G; subst; rewrite ?upd_mid.
        eapply (alloc_local_range_inv c sh0 m a (mkL cu gu 0 ini de) b); eauto.
      * eapply (gsfs_inv c m a b fs la x lb sh0 cu gu 0 ini de 0%Z (de + 1)%Z); eauto; try lia;
          try (intros; congruence).
    + destruct (sget m nxl) eqn:Eg; try discriminate.
      inversion G; subst; rewrite ?upd_mid.
      eapply (alloc_local_list_inv c sh0 m a (mkL cu gu nxl ini de) b); eauto.
  - eapply (gsfs_inv c m a b fs la x lb sh0 cu gu nxl ini de de 1%Z); eauto; intros; congruence.
Qed.

(** ** `free_slot` *)

Lemma node_not_free : forall c s fs ls id, AInvW c s fs ls -> sget (sl s) id = SNode ->
  id <> 0 /\ ~ In id (wfree c s fs ls).
Proof.
  intros c s fs ls id I Hn. assert (in_arr c id) as Hr by (apply (w_nodes _ _ _ _ I); auto). split.
  - eapply in_arr_nonzero; [apply (w_term _ _ _ _ I) | exact Hr].
  - apply (w_live _ _ _ _ I id Hr). exact Hn.
Qed.

Lemma free_local_inv : forall c sh0 m a l b fs la x lb id,
  AInvW c (mkSt sh0 m (a ++ l :: b)) fs (la ++ x :: lb) -> length a = length la ->
  is_this (l_cur l) = true -> sget m id = SNode ->
  AInv c (mkSt sh0 (sset m id (SFree (l_next l)))
               (a ++ mkL (l_cur l) (l_guard l) id (l_init l) (l_delta l - 1)%Z :: b)).
Proof.
  intros c sh0 m a l b fs la x lb id I L Et Hn.
  destruct (inv_mid _ _ _ _ _ _ _ _ _ _ I L) as [Px (W1 & W2 & W3)].
  destruct (node_not_free _ _ _ _ _ I Hn) as [Hid Hni]. rewrite wfree_mid in Hni.
  unfold lchainP in Px. rewrite Et in Px. exists fs, (la ++ (id :: x) :: lb).
  eapply inv_free_generic with (id := id); [exact I | exact Hn | | reflexivity | | ].
  - rewrite !wfree_mid. unfold lrange. cbn [l_cur l_init s_alloc]. perm_count.
  - eapply thread_shape; [exact I | exact L | ..]; simpl; try (destruct I; assumption); try apply N.le_refl.
    + eapply schains_ext; [destruct I; eassumption|]. apply sset_frame. notin_by_count id.
    + unfold lchainP. simpl. rewrite Et. apply Chain_push; auto. notin_by_count id.
    + split; [|split]; simpl; auto. intros E. elim E. apply this_is. exact Et.
    + apply sset_frame. notin_by_count id.
  - simpl. rewrite !sumd_mid. simpl. lia.
Qed.

Lemma free_handover_inv : forall c fr al cnt g m a l b fs la x lb id,
  AInvW c (mkSt (mkSh fr al cnt g) m (a ++ l :: b)) fs (la ++ x :: lb) -> length a = length la ->
  is_this (l_cur l) = true -> sget m id = SNode ->
  AInv c (mkSt (mkSh (id :: fr) al (cnt + (l_delta l - 1))%Z g) (sset m id (SFree (l_next l)))
               (a ++ mkL (l_cur l) (l_guard l) 0 (l_init l) 0%Z :: b)).
Proof.
  intros c fr al cnt g m a l b fs la x lb id I L Et Hn.
  destruct (inv_mid _ _ _ _ _ _ _ _ _ _ I L) as [Px (W1 & W2 & W3)].
  destruct (node_not_free _ _ _ _ _ I Hn) as [Hid Hni]. rewrite wfree_mid in Hni.
  unfold lchainP in Px. rewrite Et in Px. exists ((id :: x) :: fs), (la ++ [] :: lb).
  eapply inv_free_generic with (id := id); [exact I | exact Hn | | reflexivity | | ].
  - rewrite !wfree_mid. unfold lrange. cbn [l_cur l_init s_alloc]. perm_count.
  - eapply thread_shape; [exact I | exact L | ..]; simpl; try (destruct I; assumption); try apply N.le_refl.
    + constructor; [exact Hid | destruct I; assumption].
    + constructor.
      * apply Chain_push; auto. notin_by_count id.
      * eapply schains_ext; [destruct I; eassumption|]. apply sset_frame. notin_by_count id.
    + unfold lchainP. simpl. rewrite Et. constructor.
    + split; [|split]; simpl in *; auto.
    + apply sset_frame. notin_by_count id.
  - simpl. rewrite !sumd_mid. simpl. lia.
Qed.

Lemma free_nonlocal_inv : forall c fr al cnt g m thr fs ls id,
  AInvW c (mkSt (mkSh fr al cnt g) m thr) fs ls ->
  sget m id = SNode ->
  AInv c (mkSt (mkSh (id :: (match fr with [] => [] | _ :: r => r end)) al (cnt - 1)%Z g)
               (sset m id (SFree (match fr with [] => 0 | h :: _ => h end))) thr).
Proof.
  intros c fr al cnt g m thr fs ls id I Hn.
  destruct (node_not_free _ _ _ _ _ I Hn) as [Hid Hni]. unfold wfree in Hni. simpl in Hni.
  destruct (inv_shape _ _ _ _ I) as (A & HH & SC & LC & W). simpl in *.
  assert (Forall2 (lchainP (sset m id (SFree (match fr with [] => 0 | h :: _ => h end)))) thr ls) as LC'.
  { eapply lchains_ext; [exact LC|]. apply sset_frame. notin_by_count id. }
  destruct fr as [|h r].
  - inversion SC; subst. exists [[id]], ls.
    eapply inv_free_generic with (id := id); [exact I | exact Hn | | reflexivity | | simpl; lia].
    + unfold wfree. simpl. perm_count.
    + repeat split; simpl; auto. constructor; [|constructor]. apply Chain_push; auto. constructor.
  - inversion SC as [|? f1 ? frest C1 Cr]; subst. inversion HH; subst. exists ((id :: f1) :: frest), ls.
    eapply inv_free_generic with (id := id); [exact I | exact Hn | | reflexivity | | simpl; lia].
    + unfold wfree. simpl. perm_count.
    + repeat split; simpl; auto. constructor.
      * apply Chain_push; auto. notin_by_count id.
      * eapply schains_ext; eauto. apply sset_frame. notin_by_count id.
Qed.

Lemma free_slot_inv : forall c s t l id,
  AInv c s -> nth_error (th s) t = Some l -> is_node (sget (sl s) id) = true ->
  AInv c (fst (free_slot c good s t l id)).
Proof.
  intros c s t l id (fs & ls & I) H Hn.
  assert (sget (sl s) id = SNode) as Hn' by (destruct (sget (sl s) id); simpl in *; congruence).
  unfold free_slot. cbn [v_ho_drift v_no_reset good].
  destruct (is_this (l_cur l)) eqn:Et.
  - thread_start I H. destruct s as [[fr al cnt g] m th0]. simpl in *. subst th0 ls t.
    destruct (- Z.of_N (chunk c) <? l_delta l - 1)%Z.
    + simpl. rewrite upd_mid. eapply free_local_inv; eauto.
    + simpl. rewrite upd_mid. eapply free_handover_inv; eauto.
  - destruct s as [[fr al cnt g] m th0]. simpl in *.
    pose proof (free_nonlocal_inv c fr al cnt g m th0 fs ls id I Hn') as I'. destruct fr; exact I'.
Qed.

(** ** guard drop and the collector's epilogue *)

Lemma link_range_other : forall c n m i tl j,
  ~ In j (range_ids c i n) -> sget (link_range c m i n tl) j = sget m j.
Proof.
  intros c n. induction n; intros m i tl j Hj; [reflexivity|].
  cbn [link_range]. cbn [range_ids In] in Hj.
  rewrite sget_sset_other by (intro; subst; apply Hj; left; auto).
  apply IHn. intro. apply Hj. right; auto.
Qed.

Lemma link_range_in : forall c n m i tl j,
  In j (range_ids c i n) -> exists nx, sget (link_range c m i n tl) j = SFree nx.
Proof.
  intros c n. induction n; intros m i tl j Hj; [contradiction|].
  cbn [link_range]. cbn [range_ids In] in Hj.
  destruct (N.eq_dec j (i + term c)).
  - subst. rewrite sget_sset_same. eauto.
  - rewrite sget_sset_other by auto. apply IHn. destruct Hj; [congruence | auto].
Qed.

Lemma link_range_chain : forall c n m i tl x,
  1 <= term c -> (1 <= n)%nat -> Chain m tl x ->
  (forall j, In j (range_ids c i n) -> ~ In j x) ->
  Chain (link_range c m i n tl) (i + term c) (range_ids c i n ++ x).
Proof.
  intros c n. induction n; intros m i tl x Ht Hn Cx Hd; [lia|].
  cbn [link_range range_ids app]. destruct n as [|k].
  - simpl. apply Chain_push; auto; [lia|]. apply Hd. left; auto.
  - assert (Chain (link_range c m (i + 1) (S k) tl) (i + 1 + term c) (range_ids c (i + 1) (S k) ++ x)) as IH.
    { apply IHn; auto; [lia|]. intros j Hj. apply Hd. right; auto. }
    replace (i + 1 + term c) with (i + term c + 1) in IH by lia.
    apply Chain_push; auto; [lia|].
    intro Hin. apply in_app_or in Hin. destruct Hin as [Hin | Hin].
    + apply in_range_ids in Hin. lia.
    + apply (Hd (i + term c)); auto. left; auto.
Qed.

Lemma flush_inv : forall c fr al cnt g g' m a l b fs la x lb l',
  AInvW c (mkSt (mkSh fr al cnt g) m (a ++ l :: b)) fs (la ++ x :: lb) -> length a = length la ->
  is_this (l_cur l) = true ->
  lchainP m l' [] -> lrange c l' = lrange c l -> l_delta l' = 0%Z -> local_ok c (mkSh fr al cnt g) l' ->
  AInv c (mkSt (mkSh (if l_next l =? 0 then fr else l_next l :: fr) al (cnt + l_delta l)%Z g') m
               (a ++ l' :: b)).
Proof.
  intros c fr al cnt g g' m a l b fs la x lb l' I L Et Px' Hr Hd Hok.
  destruct (inv_mid _ _ _ _ _ _ _ _ _ _ I L) as [Px _]. unfold lchainP in Px. rewrite Et in Px.
  exists (if l_next l =? 0 then fs else x :: fs), (la ++ [] :: lb).
  eapply inv_move_generic; [exact I | | simpl; tauto | | ].
  - rewrite !wfree_mid, Hr. cbn [s_alloc].
    destruct (N.eqb_spec (l_next l) 0) as [E|E]; [rewrite E in Px; rewrite (Chain_zero _ _ Px)|]; perm_count.
  - eapply thread_shape; [exact I | exact L | ..]; simpl; auto using N.le_refl; try (destruct I; assumption).
    + destruct (N.eqb_spec (l_next l) 0); [|constructor; auto]; destruct I; assumption.
    + destruct (N.eqb_spec (l_next l) 0); [|constructor; auto]; destruct I; assumption.
  - simpl. rewrite !sumd_mid, Hd. destruct (l_next l =? 0); simpl; lia.
Qed.

(** the rest of the thread's chunk is linked in front of its list, everything goes to the shared state *)
Lemma return_range_inv : forall c fr al cnt g m a l b fs la x lb,
  AInvW c (mkSt (mkSh fr al cnt g) m (a ++ l :: b)) fs (la ++ x :: lb) -> length a = length la ->
  is_this (l_cur l) = true -> in_chunk c (l_init l) = true ->
  AInv c (mkSt (mkSh ((l_init l + term c) :: fr) al (cnt + l_delta l)%Z g)
               (link_range c m (l_init l) (N.to_nat (chunk_end c (l_init l) - l_init l)) (l_next l))
               (a ++ mkL CNone false (l_next l) (l_init l) 0%Z :: b)).
Proof.
  intros c fr al cnt g m a l b fs la x lb I L Et Hin.
  destruct (inv_mid _ _ _ _ _ _ _ _ _ _ I L) as [Px _]. unfold lchainP in Px. rewrite Et in Px.
  pose proof (w_chunk _ _ _ _ I) as Hc. pose proof (w_term _ _ _ _ I) as Ht.
  destruct (chunk_step c (l_init l) Hc) as (A & _).
  set (n := N.to_nat (chunk_end c (l_init l) - l_init l)) in *.
  assert (lrange c l = range_ids c (l_init l) n) as ER by (unfold lrange; rewrite Et, Hin; reflexivity).
  pose proof (w_nodup _ _ _ _ I) as ND. rewrite wfree_mid, ER in ND.
  set (m' := link_range c m (l_init l) n (l_next l)).
  assert (forall j, ~ In j (range_ids c (l_init l) n) -> sget m' j = sget m j) as Hoth
    by (intros; apply link_range_other; auto).
  exists ((lrange c l ++ x) :: fs), (la ++ [] :: lb).
  eapply inv_move_generic; [exact I | | | | ].
  - rewrite !wfree_mid, ER. cbn [s_alloc].
    rewrite (lrange_not_this c (mkL CNone false (l_next l) (l_init l) 0%Z)) by reflexivity. perm_count.
  - simpl. fold n m'. intros j. destruct (in_dec N.eq_dec j (range_ids c (l_init l) n)) as [Hj | Hj].
    + destruct (link_range_in c n m (l_init l) (l_next l) j Hj) as (nx & E). fold m' in E. rewrite E.
      split; [discriminate|]. intros Hn. exfalso.
      apply (proj2 (node_not_free _ _ _ _ _ I Hn)). rewrite wfree_mid, ER. in_by_count j.
    + rewrite (Hoth j Hj). tauto.
  - eapply thread_shape; [exact I | exact L | ..]; simpl; fold n m'; try (destruct I; assumption).
    + reflexivity.
    + constructor; [lia | destruct I; assumption].
    + constructor.
      * rewrite ER. apply link_range_chain; auto; [lia|]. intros j Hj. notin_by_count j.
      * eapply schains_ext; [destruct I; eassumption|]. intros j Hj. apply Hoth. notin_by_count j.
    + reflexivity.
    + split; [|split]; simpl; intros; auto; congruence.
    + intros j Hj. apply Hoth. notin_by_count j.
  - simpl. rewrite !sumd_mid. simpl. lia.
Qed.

Lemma drop_guard_inv : forall c s t l,
  AInv c s -> nth_error (th s) t = Some l -> l_guard l && is_this (l_cur l) = true ->
  AInv c (fst (drop_guard c good s t l)).
Proof.
  intros c s t l (fs & ls & I) H Hg. apply andb_prop in Hg. destruct Hg as [Hgu Et].
  thread_start I H. destruct s as [[fr al cnt g] m th0]. simpl in *. subst th0 ls t.
  pose proof (w_term _ _ _ _ I) as Ht.
  assert (local_ok c (mkSh fr al cnt g) (mkL CNone false (l_next l) (l_init l) 0%Z)) as Hok
    by (split; [|split]; simpl; intros; auto; congruence).
  unfold drop_guard. cbn [v_tail_zero good sh sl th s_free s_alloc s_count s_gc].
  destruct (negb (l_next l =? 0) || in_chunk c (l_init l) || negb (l_delta l =? 0)%Z) eqn:Econd.
  - destruct (in_chunk c (l_init l)) eqn:Hin.
    + (* the rest of the chunk is returned *)
      destruct (N.eqb_spec (l_init l + term c) 0) as [E0 | E0]; [lia|].
      simpl. rewrite upd_mid. eapply return_range_inv; eauto.
    + simpl. rewrite upd_mid. eapply (flush_inv c fr al cnt g g m a l b); eauto.
      * reflexivity.
      * rewrite (lrange_not_chunk c l Hin). apply lrange_not_this. reflexivity.
  - apply orb_false_iff in Econd. destruct Econd as [E1 E3].
    apply orb_false_iff in E1. destruct E1 as [E1 E2].
    apply negb_false_iff in E1. apply N.eqb_eq in E1.
    apply negb_false_iff in E3. apply Z.eqb_eq in E3.
    destruct (inv_mid _ _ _ _ _ _ _ _ _ _ I L) as [Px _].
    unfold lchainP in Px. rewrite Et, E1 in Px. apply Chain_zero in Px. subst x.
    unfold set_th. simpl. rewrite upd_mid, E3.
    eapply (inv_local_change c _ m a l); eauto.
    + reflexivity.
    + rewrite (lrange_not_chunk c l E2). apply lrange_not_this. reflexivity.
Qed.

Lemma gc_flush_inv : forall c s t l,
  AInv c s -> nth_error (th s) t = Some l -> is_this (l_cur l) && negb (l_guard l) = true ->
  AInv c (fst (gc_flush c s t l)).
Proof.
  intros c s t l (fs & ls & I) H Hg. apply andb_prop in Hg. destruct Hg as [Et Hgu].
  thread_start I H. destruct s as [[fr al cnt g] m th0]. simpl in *. subst th0 ls t.
  unfold gc_flush. cbn [sh sl th s_free s_alloc s_count s_gc].
  destruct (N.eqb_spec (l_next l) 0) as [E0 | E0]; cbn [negb].
  - simpl. rewrite upd_mid. exists fs, (la ++ x :: lb).
    eapply inv_move_generic; [exact I | reflexivity | simpl; tauto | | reflexivity].
    exact (inv_shape _ _ _ _ I).
  - simpl. rewrite upd_mid.
    destruct (inv_mid _ _ _ _ _ _ _ _ _ _ I L) as [_ (W1 & W2 & W3)].
    pose proof (flush_inv c fr al cnt g
      (if (cnt + l_delta l <? lwm c)%Z && negb (gcst_eqb g GDisabled) then GInit else g)
      m a l b fs la x lb (mkL (l_cur l) (l_guard l) 0 (l_init l) 0%Z) I L Et) as F.
    destruct (N.eqb_spec (l_next l) 0) as [E|_]; [contradiction|]. apply F; auto.
    + unfold lchainP. simpl. rewrite Et. constructor.
    + split; [|split]; simpl in *; auto.
Qed.

(** ** every action, every schedule *)

Theorem step_inv : forall c s a s' o,
  AInv c s -> step c good s a = Some (s', o) -> AInv c s'.
Proof.
  intros c s a s' o I H. destruct a; simpl in H;
    try (destruct (nth_error (th s) t) as [l|] eqn:E; [|discriminate]).
  - inversion H; subst. apply spawn_inv; auto.
  - unfold prepare in H. destruct (is_none (l_cur l)) eqn:G; inversion H; subst; [|exact I].
    eapply unbound_change_inv; eauto; simpl; auto using in_chunk_zero.
    destruct (l_cur l); simpl in *; congruence.
  - destruct (l_guard l && is_this (l_cur l)) eqn:G; [|discriminate]. inversion H.
    pose proof (drop_guard_inv c s t l I E G) as P. rewrite H1 in P. exact P.
  - match type of H with (if ?b then _ else _) = _ => destruct b eqn:G end; [|discriminate].
    inversion H; subst. repeat (apply andb_prop in G; destruct G as [G ?]).
    eapply unbound_change_inv; eauto; simpl; auto using in_chunk_zero.
    + destruct (l_cur l); simpl in *; congruence.
    + symmetry. apply Z.eqb_eq. assumption.
  - destruct (is_none (l_cur l)) eqn:G; [|discriminate]. inversion H; subst.
    eapply unbound_change_inv; eauto; simpl; try congruence.
    destruct (l_cur l); simpl in *; congruence.
  - destruct (is_other (l_cur l)) eqn:G; [|discriminate]. inversion H; subst.
    eapply unbound_change_inv; eauto; simpl; try congruence.
    destruct (l_cur l); simpl in *; congruence.
  - eapply add_node_inv; eauto.
  - destruct (is_node (sget (sl s) id)) eqn:G; [|discriminate]. inversion H.
    pose proof (free_slot_inv c s t l id I E G) as P. rewrite H1 in P. exact P.
  - destruct (is_this (l_cur l) && negb (l_guard l)) eqn:G; [|discriminate]. inversion H.
    pose proof (gc_flush_inv c s t l I E G) as P. rewrite H1 in P. exact P.
Qed.

Lemma run_closed : forall c v (P : st -> Prop),
  (forall s a s' o, P s -> step c v s a = Some (s', o) -> P s') ->
  forall sched s s' os, P s -> run c v s sched = Some (s', os) -> P s'.
Proof.
  intros c v P Hstep sched. induction sched as [|a r IH]; intros s s' os I H; simpl in H.
  - inversion H; subst. exact I.
  - destruct (step c v s a) as [[s1 o]|] eqn:E; [|discriminate].
    destruct (run c v s1 r) as [[s2 os2]|] eqn:E2; [|discriminate]. inversion H; subst.
    eapply IH; [|eassumption]. eapply Hstep; eauto.
Qed.

Theorem run_inv : forall c sched s s' os,
  AInv c s -> run c good s sched = Some (s', os) -> AInv c s'.
Proof. intros c. exact (run_closed c good (AInv c) (step_inv c)). Qed.

Theorem init_inv : forall c n, 1 <= chunk c -> 1 <= term c -> AInv c (init c n).
Proof.
  intros c n Hc Ht. exists [], (repeat [] n). unfold init.
  assert (flat_map (lrange c) (repeat lfresh n) = []) as ER.
  { induction n; simpl; auto. }
  assert (concat (repeat ([] : list N) n) = []) as EC.
  { induction n; simpl; auto. }
  constructor; simpl; auto; try lia.
  - induction n; simpl; constructor; auto. reflexivity.
  - induction n; simpl; constructor; auto. repeat split; simpl; intros; auto; congruence.
  - unfold wfree. simpl. rewrite EC, ER. simpl. apply range_ids_nodup.
  - unfold wfree. simpl. rewrite EC, ER. simpl. intros id Hi. unfold unalloc in Hi.
    apply in_range_ids in Hi. unfold in_arr. lia.
  - intros id. rewrite sget_empty. discriminate.
  - intros id Hr. rewrite sget_empty. split; [discriminate|]. intros Hn. exfalso. apply Hn.
    unfold wfree. simpl. rewrite EC, ER. simpl. unfold unalloc. apply in_range_ids. unfold in_arr in Hr. lia.
  - rewrite sumd_repeat_fresh. unfold nlive, live_slots. simpl.
    assert (filter (fun id => is_node (sget (PositiveMap.empty slot) id)) (ids c) = []) as EF.
    { induction (ids c); simpl; auto. rewrite sget_empty. simpl. auto. }
    rewrite EF. reflexivity.
Qed.
