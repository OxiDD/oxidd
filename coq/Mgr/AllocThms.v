(** * ALLOC — the theorems of coq/Mgr/AllocProofs.v for every state that is reachable from a new
      manager under ANY interleaving of the threads' actions *)

From Coq Require Import List NArith ZArith PArith Bool Arith Lia Permutation.
From OxiVerif Require Import Mgr.Alloc Mgr.AllocBase Mgr.AllocInv Mgr.AllocStep Mgr.AllocProofs.
Import ListNotations.
Local Open Scope N_scope.

(** a state of the store after any schedule of any number of threads ([ASpawn] adds threads) *)
Definition reachable (c : cfg) (s : st) : Prop :=
  exists n sched os, 1 <= chunk c /\ 1 <= term c /\ run c good (init c n) sched = Some (s, os).

Lemma reachable_inv : forall c s, reachable c s -> AInv c s.
Proof.
  intros c s (n & sched & os & Hc & Ht & H). eapply run_inv; [|exact H]. apply init_inv; auto.
Qed.

Lemma run_app : forall c v a b s s1 o1 s2 o2,
  run c v s a = Some (s1, o1) -> run c v s1 b = Some (s2, o2) -> run c v s (a ++ b) = Some (s2, o1 ++ o2).
Proof.
  intros c v a. induction a as [|x a IH]; intros b s s1 o1 s2 o2 H1 H2; simpl in *.
  - inversion H1; subst. exact H2.
  - destruct (step c v s x) as [[s' o]|]; [|discriminate].
    destruct (run c v s' a) as [[s'' os]|] eqn:E; [|discriminate]. inversion H1; subst.
    rewrite (IH b s' s1 os s2 o2 E H2). reflexivity.
Qed.

Lemma reachable_init : forall c n, 1 <= chunk c -> 1 <= term c -> reachable c (init c n).
Proof. intros. exists n, [], []. auto. Qed.

Lemma reachable_step : forall c s a s' o, reachable c s -> step c good s a = Some (s', o) -> reachable c s'.
Proof.
  intros c s a s' o (n & sched & os & Hc & Ht & H) G. exists n, (sched ++ [a]), (os ++ [o]).
  repeat split; auto. eapply run_app; eauto. simpl. rewrite G. reflexivity.
Qed.

Lemma reachable_run : forall c sched s s' os, reachable c s -> run c good s sched = Some (s', os) -> reachable c s'.
Proof. intros c. exact (run_closed c good (reachable c) (reachable_step c)). Qed.

(** (a) the partition of the slot array *)
Theorem r_partition : forall c s, reachable c s ->
  NoDup (live_slots c s ++ shared_slots c s ++ local_slots c s ++ range_slots c s ++ unalloc_slots c s) /\
  Permutation (live_slots c s ++ shared_slots c s ++ local_slots c s ++ range_slots c s ++ unalloc_slots c s)
              (ids c).
Proof. intros. apply partition. apply reachable_inv. auto. Qed.

(** (a) the slot handed out: inside the array, in exactly one free list / range before, not live
    before; live and in no list or range afterwards *)
Theorem r_alloc_safe : forall c s t s' id p, reachable c s ->
  step c good s (AAlloc t) = Some (s', OAlloc (Some id) p) ->
  (term c <= id < term c + cap c) /\ In id (free_slots c s) /\ ~ In id (live_slots c s) /\
  In id (live_slots c s') /\ ~ In id (free_slots c s').
Proof.
  intros c s t s' id p R H. destruct (alloc_safe _ _ _ _ _ _ (reachable_inv _ _ R) H) as (A & B & C & D & E & _).
  repeat split; auto; apply A.
Qed.

(** (a) where it comes from, by path *)
Theorem r_alloc_source : forall c s t l s' id p, reachable c s -> nth_error (th s) t = Some l ->
  step c good s (AAlloc t) = Some (s', OAlloc (Some id) p) ->
  match p with
  | PLocalList => exists r, lchain c (sl s) l = id :: r
  | PLocalRange => exists r, lrange c l = id :: r
  | PSharedList | PNonLocalList =>
    exists h rest r, s_free (sh s) = h :: rest /\ chainl (fuel c) (sl s) h = id :: r
  | PSharedChunk | PSharedBump | PNonLocalBump => exists r, unalloc_slots c s = id :: r
  | POom => False
  end.
Proof.
  intros c s t l s' id p R H G. simpl in G. rewrite H in G.
  eapply alloc_source; eauto. apply reachable_inv; auto.
Qed.

(** (a) never handed out twice *)
Theorem r_no_double_handout : forall c sched s s' os id, reachable c s ->
  In id (live_slots c s) -> run c good s sched = Some (s', os) -> frees_slot sched id = false ->
  In id (live_slots c s') /\ forall p, ~ In (OAlloc (Some id) p) os.
Proof. intros. eapply no_double_handout; eauto. apply reachable_inv; auto. Qed.

(** `add_node` is never stuck (no list head that is not a free slot) *)
Theorem r_alloc_enabled : forall c s t, reachable c s -> (t < length (th s))%nat ->
  exists s' o, step c good s (AAlloc t) = Some (s', o).
Proof. intros. apply alloc_enabled; auto. apply reachable_inv; auto. Qed.

Theorem r_chains_ok : forall c s, reachable c s ->
  Forall (fun h => h <> 0 /\ chain_ok (fuel c) (sl s) h = true) (s_free (sh s)) /\
  Forall (fun l => is_this (l_cur l) = true -> chain_ok (fuel c) (sl s) (l_next l) = true) (th s).
Proof. intros. apply chains_ok. apply reachable_inv; auto. Qed.

(** (d) node count bookkeeping *)
Theorem r_count_exact : forall c s, reachable c s ->
  (s_count (sh s) + sum_delta s)%Z = Z.of_nat (nlive c s).
Proof. intros. apply count_exact. apply reachable_inv; auto. Qed.

(** the number that `get_slot_from_shared` compares with the high-water mark (the shared count
    after its update) is the number of live slots, the new node included, minus the OTHER threads'
    pending deltas *)
Theorem r_trigger_count : forall c s t l s' id p, reachable c s -> nth_error (th s) t = Some l ->
  step c good s (AAlloc t) = Some (s', OAlloc (Some id) p) ->
  match p with PLocalList | PLocalRange => True | _ =>
    (s_count (sh s') = Z.of_nat (nlive c s') - (sum_delta s - l_delta l))%Z
  end.
Proof.
  intros c s t l s' id p R H G.
  pose proof (r_count_exact c s' (reachable_step _ _ _ _ _ R G)) as C'. rewrite sum_delta_sumd in *.
  simpl in G. rewrite H in G.
  (* on the shared paths the thread's delta is 0 afterwards *)
  assert (forall l0 d, get_slot_from_shared c good s t l0 d = Some (s', OAlloc (Some id) p) -> l_delta l0 = 0%Z ->
          s_count (sh s') = (Z.of_nat (nlive c s') - (sumd (th s) - l_delta l))%Z) as Hsh.
  { intros l0 d G0 E0. destruct (gsfs_frame _ _ _ _ _ _ _ G0) as (_ & _ & l' & _ & Eth & _ & Ed & _).
    rewrite Eth, (sumd_upd _ _ l _ H) in C'. lia. }
  unfold add_node in G. destruct (is_this (l_cur l)) eqn:Et.
  - destruct (negb (l_next l =? 0)).
    + destruct (sget (sl s) (l_next l)); try discriminate. inversion G. exact I.
    + destruct (in_chunk c (l_init l)); [inversion G; exact I|].
      pose proof (Hsh _ _ G eq_refl). destruct p; auto.
  - assert (l_delta l = 0%Z) as Hd.
    { destruct (reachable_inv _ _ R) as (fs & ls & Iv).
      pose proof (w_locals _ _ _ _ Iv) as W. rewrite Forall_forall in W.
      destruct (W l (nth_error_In _ _ H)) as (_ & W2 & _). apply W2. apply not_this_is; auto. }
    pose proof (Hsh _ _ G Hd). destruct p; auto.
Qed.

(** (b) no leak *)
Theorem r_free_count : forall c s, reachable c s ->
  (nlive c s + length (free_slots c s))%nat = N.to_nat (cap c).
Proof. intros. apply free_count. apply reachable_inv; auto. Qed.

Theorem r_quiescent_no_leak : forall c s, reachable c s ->
  (forall t l, nth_error (th s) t = Some l -> holds_nothing c l) ->
  free_slots c s = shared_slots c s ++ unalloc_slots c s /\
  (nlive c s + length (shared_slots c s) + length (unalloc_slots c s))%nat = N.to_nat (cap c).
Proof. intros. apply quiescent_no_leak; auto. apply reachable_inv; auto. Qed.

Theorem r_quiescent_count : forall c s, reachable c s ->
  (forall t l, nth_error (th s) t = Some l -> is_this (l_cur l) = false) ->
  s_count (sh s) = Z.of_nat (nlive c s).
Proof. intros. apply quiescent_count; auto. apply reachable_inv; auto. Qed.

(** (b) the capacity probe; with [nlive c s = 0] (everything dropped and collected): every slot
    can be allocated again *)
Theorem r_capacity_probe : forall c k s t l, reachable c s -> nth_error (th s) t = Some l ->
  others_idle_p c s t -> (nlive c s + k = N.to_nat (cap c))%nat ->
  exists s' ids, allocs c s t k = Some (s', ids) /\ length ids = k /\ reachable c s' /\
    nlive c s' = N.to_nat (cap c) /\
    exists s'', step c good s' (AAlloc t) = Some (s'', OAlloc None POom).
Proof.
  intros c k s t l R H Ho Hk.
  destruct (capacity_probe c k s t l (reachable_inv _ _ R) H Ho Hk) as (s' & ids & A & L & _ & N' & O).
  exists s', ids. repeat split; auto.
  clear - R A. revert s s' ids R A. induction k; intros s s' ids R A; cbn [allocs] in A.
  - inversion A; subst. auto.
  - destruct (step c good s (AAlloc t)) as [[s1 o]|] eqn:E; [|discriminate].
    destruct o as [| | [id|] p | | |]; try discriminate.
    destruct (allocs c s1 t k) as [[s2 ids2]|] eqn:E2; [|discriminate]. inversion A; subst.
    eapply IHk; [|exact E2]. eapply reachable_step; eauto.
Qed.

(** (c) out of memory *)
Theorem r_oom_iff : forall c s t l, reachable c s -> nth_error (th s) t = Some l ->
  ((exists s' p, step c good s (AAlloc t) = Some (s', OAlloc None p)) <->
   (shared_slots c s = [] /\ unalloc_slots c s = [] /\ thread_slots c s t = [])).
Proof. intros. eapply oom_iff; eauto. apply reachable_inv; auto. Qed.

Theorem r_oom_only_parked : forall c s t s' p, reachable c s ->
  step c good s (AAlloc t) = Some (s', OAlloc None p) ->
  p = POom /\ sl s' = sl s /\
  forall id, In id (free_slots c s) -> exists u, u <> t /\ In id (thread_slots c s u).
Proof. intros. apply oom_only_parked; auto. apply reachable_inv; auto. Qed.

Theorem r_oom_single : forall c s t l, reachable c s -> nth_error (th s) t = Some l -> others_idle_p c s t ->
  ((exists s' p, step c good s (AAlloc t) = Some (s', OAlloc None p)) <-> nlive c s = N.to_nat (cap c)).
Proof. intros. eapply oom_single; eauto. apply reachable_inv; auto. Qed.

(** the executable [others_idle] decides [others_idle_p] *)
Lemma others_idle_spec : forall c s t, others_idle c s t = true -> others_idle_p c s t.
Proof.
  intros c s t H u l Hu E Et. unfold others_idle in H. rewrite forallb_forall in H.
  assert (In (u, l) (combine (seq 0 (length (th s))) (th s))) as Hin.
  { clear - E. assert (forall k, In (k + u, l)%nat (combine (seq k (length (th s))) (th s))) as G.
    { revert u E. induction (th s) as [|x r IH]; intros u E k; destruct u; simpl in *; try discriminate.
      - inversion E; subst. left. f_equal. lia.
      - right. replace (k + S u)%nat with (S k + u)%nat by lia. apply IH. auto. }
    apply (G 0%nat). }
  specialize (H _ Hin). simpl in H.
  destruct (Nat.eqb_spec u t); [contradiction|]. simpl in H. rewrite Et in H. simpl in H.
  apply andb_prop in H. destruct H as [A B]. apply N.eqb_eq in A. apply negb_true_iff in B. auto.
Qed.

(** (c) once a slot is free and no OTHER thread holds slots, `add_node` succeeds *)
Theorem r_alloc_succeeds : forall c s t l, reachable c s -> nth_error (th s) t = Some l ->
  others_idle_p c s t -> (nlive c s < N.to_nat (cap c))%nat ->
  exists s' id p, step c good s (AAlloc t) = Some (s', OAlloc (Some id) p).
Proof.
  intros c s t l R H Ho Hn.
  destruct (add_node_total c s t l (reachable_inv _ _ R) H) as (s' & r & p & G).
  assert (step c good s (AAlloc t) = Some (s', OAlloc r p)) as G' by (simpl; rewrite H; exact G).
  destruct r as [id|]; [eauto|].
  exfalso. assert (nlive c s = N.to_nat (cap c)); [|lia].
  apply (proj1 (r_oom_single c s t l R H Ho)). eauto.
Qed.
