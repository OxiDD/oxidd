(** * C07 — basic facts about the definitions of Mgr/Conc.v

    Lookup after each table primitive ([rc_upd], [dec_children], [cremove],
    insertion), "shape" congruence (everything structural depends on
    [cn_shape] only, i.e. not on the counts), counting lemmas for tokens and
    parents, and the structural table invariant [TInv] with its preservation
    under insertion of a fresh reduced node and removal of an unreferenced
    node. *)

From Coq Require Import List NArith PArith Bool Arith Lia.
From OxiVerif Require Import Base.ListFacts DD.Table DD.TableProofs Mgr.Conc.
Import ListNotations.

Arguments N.add : simpl never.
Arguments N.sub : simpl never.
Arguments N.mul : simpl never.

(** ** lookup *)

Lemma cfind_In : forall t id nd, cfind t id = Some nd -> In (id, nd) t.
Proof.
  induction t as [|[i n] r IH]; intros id nd H; simpl in H; [discriminate|].
  destruct (Pos.eqb_spec i id) as [->|Hne].
  - inversion H; subst. left. reflexivity.
  - right. apply IH. exact H.
Qed.

Lemma cfind_None_keys : forall t id, cfind t id = None <-> ~ In id (map fst t).
Proof.
  induction t as [|[i n] r IH]; intros id; simpl.
  - split; [intros _ [] | reflexivity].
  - destruct (Pos.eqb_spec i id) as [->|Hne].
    + split; [discriminate | intros H; exfalso; apply H; left; reflexivity].
    + rewrite IH. split; [intros H [E|E]; [congruence | contradiction] | intros H E; apply H; right; exact E].
Qed.

Lemma cfind_Some_keys : forall t id nd, cfind t id = Some nd -> In id (map fst t).
Proof. intros t id nd H. apply cfind_In in H. apply (in_map fst) in H. exact H. Qed.

Lemma In_cfind : forall t id nd, NoDup (map fst t) -> In (id, nd) t -> cfind t id = Some nd.
Proof.
  induction t as [|[i n] r IH]; intros id nd Hnd Hin; simpl in *; [destruct Hin|].
  inversion Hnd as [|? ? Hi Hr]; subst.
  destruct Hin as [E|Hin].
  - inversion E; subst. rewrite Pos.eqb_refl. reflexivity.
  - destruct (Pos.eqb_spec i id) as [->|Hne].
    + exfalso. apply Hi. apply (in_map fst) in Hin. exact Hin.
    + apply IH; assumption.
Qed.

Lemma cfind_cons : forall i n t j,
  cfind ((i, n) :: t) j = if Pos.eqb i j then Some n else cfind t j.
Proof. reflexivity. Qed.

Lemma cfind_rc_upd : forall f id t j,
  cfind (rc_upd f id t) j =
  if Pos.eqb j id then option_map (fun nd => set_rc nd (f (crc nd))) (cfind t j) else cfind t j.
Proof.
  induction t as [|[i n] r IH]; intros j; simpl.
  - destruct (Pos.eqb j id); reflexivity.
  - destruct (Pos.eqb_spec i id) as [->|Hne]; simpl.
    + destruct (Pos.eqb_spec id j) as [->|Hne2].
      * rewrite Pos.eqb_refl. reflexivity.
      * destruct (Pos.eqb_spec j id) as [->|_]; [congruence | reflexivity].
    + destruct (Pos.eqb_spec i j) as [->|Hne2].
      * destruct (Pos.eqb_spec j id) as [->|_]; [congruence | reflexivity].
      * apply IH.
Qed.

Lemma points_to_RN : forall id j b, points_to id (mkEdge (RN j) b) = Pos.eqb j id.
Proof. reflexivity. Qed.

Lemma points_to_spec : forall id e, points_to id e = true <-> eref e = RN id.
Proof.
  intros id e. unfold points_to. destruct (eref e) as [x|j].
  - split; discriminate.
  - rewrite Pos.eqb_eq. split; congruence.
Qed.

Lemma cfind_dec_children : forall ch t j,
  cfind (dec_children t ch) j =
  option_map (fun nd => set_rc nd (crc nd - N.of_nat (cnt j ch))) (cfind t j).
Proof.
  induction ch as [|e r IH]; intros t j; simpl dec_children.
  - simpl. destruct (cfind t j) as [[l c x]|]; simpl; [|reflexivity].
    unfold set_rc. simpl. rewrite N.sub_0_r. reflexivity.
  - rewrite IH. simpl cnt. unfold points_to, dec_ref. destruct (eref e) as [x|id].
    + reflexivity.
    + unfold rc_dec. rewrite cfind_rc_upd. rewrite (Pos.eqb_sym id j).
      destruct (Pos.eqb j id).
      * destruct (cfind t j) as [nd|]; simpl; [|reflexivity].
        unfold set_rc. simpl. f_equal. f_equal. lia.
      * reflexivity.
Qed.

Lemma cfind_cremove_other : forall id t j, j <> id -> cfind (cremove id t) j = cfind t j.
Proof.
  induction t as [|[i n] r IH]; intros j Hne; simpl; [reflexivity|].
  destruct (Pos.eqb_spec i id) as [->|_]; simpl.
  - destruct (Pos.eqb_spec id j); [congruence | reflexivity].
  - rewrite (IH j Hne). reflexivity.
Qed.

Lemma cfind_cremove : forall id t j, NoDup (map fst t) ->
  cfind (cremove id t) j = if Pos.eqb j id then None else cfind t j.
Proof.
  intros id t j Hnd. destruct (Pos.eqb_spec j id) as [->|Hne]; [|apply cfind_cremove_other; exact Hne].
  induction t as [|[i n] r IH]; simpl; [reflexivity|].
  inversion Hnd as [|? ? Hi Hr]; subst.
  destruct (Pos.eqb_spec i id) as [->|Hne]; simpl.
  - apply cfind_None_keys. exact Hi.
  - destruct (Pos.eqb_spec i id); [contradiction | apply IH; exact Hr].
Qed.

Lemma cremove_keys_incl : forall id t x, In x (map fst (cremove id t)) -> In x (map fst t).
Proof.
  induction t as [|[i n] r IH]; intros x H; simpl in *; [exact H|].
  destruct (Pos.eqb i id); simpl in *; [right; exact H|].
  destruct H as [H|H]; [left; exact H | right; apply IH; exact H].
Qed.

Lemma cremove_nodup : forall id t, NoDup (map fst t) -> NoDup (map fst (cremove id t)).
Proof.
  induction t as [|[i n] r IH]; intros Hnd; simpl; [constructor|].
  inversion Hnd as [|? ? Hi Hr]; subst.
  destruct (Pos.eqb i id); [exact Hr|].
  simpl. constructor; [|apply IH; exact Hr].
  intros H. apply Hi. eapply cremove_keys_incl. exact H.
Qed.

(** ** shapes: the table with the counts forgotten *)

Lemma cfind_cn_shape : forall t j,
  cfind (cn_shape t) j = option_map (fun nd => set_rc nd 0%N) (cfind t j).
Proof.
  induction t as [|[i n] r IH]; intros j; simpl; [reflexivity|].
  destruct (Pos.eqb i j); [reflexivity | apply IH].
Qed.

Lemma keys_cn_shape : forall t, map fst (cn_shape t) = map fst t.
Proof. intros t. unfold cn_shape. rewrite map_map. reflexivity. Qed.

Lemma cn_shape_rc_upd : forall f id t, cn_shape (rc_upd f id t) = cn_shape t.
Proof.
  induction t as [|[i n] r IH]; simpl; [reflexivity|].
  destruct (Pos.eqb i id); simpl; [reflexivity | rewrite IH; reflexivity].
Qed.

Lemma cn_shape_dec_children : forall ch t, cn_shape (dec_children t ch) = cn_shape t.
Proof.
  induction ch as [|e r IH]; intros t; simpl; [reflexivity|].
  rewrite IH. unfold dec_ref. destruct (eref e); [reflexivity | apply cn_shape_rc_upd].
Qed.

Lemma cn_shape_cremove : forall id t, cn_shape (cremove id t) = cremove id (cn_shape t).
Proof.
  induction t as [|[i n] r IH]; simpl; [reflexivity|].
  destruct (Pos.eqb i id); simpl; [reflexivity | rewrite IH; reflexivity].
Qed.

Lemma cn_shape_idem : forall t, cn_shape (cn_shape t) = cn_shape t.
Proof. intros t. unfold cn_shape. rewrite map_map. reflexivity. Qed.

(** equal shapes: the same ids carry nodes with the same level and children *)
Lemma shape_eq_find : forall t t' j nd, cn_shape t = cn_shape t' -> cfind t j = Some nd ->
  exists nd', cfind t' j = Some nd' /\ cl nd' = cl nd /\ cch nd' = cch nd.
Proof.
  intros t t' j nd E H.
  pose proof (cfind_cn_shape t j) as H1. pose proof (cfind_cn_shape t' j) as H2.
  rewrite E, H2, H in H1. simpl in H1.
  destruct (cfind t' j) as [nd'|]; simpl in H1; [|discriminate].
  exists nd'. inversion H1. auto.
Qed.

Lemma shape_eq_none : forall t t' j, cn_shape t = cn_shape t' -> cfind t j = None -> cfind t' j = None.
Proof.
  intros t t' j E H. apply cfind_None_keys. rewrite <- (keys_cn_shape t'), <- E, keys_cn_shape.
  apply cfind_None_keys. exact H.
Qed.

Lemma parents_cn_shape : forall t id, parents (cn_shape t) id = parents t id.
Proof. induction t as [|[i n] r IH]; intros id; simpl; [reflexivity | rewrite IH; reflexivity]. Qed.

Lemma parents_congr : forall t t' id, cn_shape t = cn_shape t' -> parents t id = parents t' id.
Proof. intros t t' id E. rewrite <- (parents_cn_shape t), E, parents_cn_shape. reflexivity. Qed.

Lemma has_parent_b_cn_shape : forall t id, has_parent_b (cn_shape t) id = has_parent_b t id.
Proof.
  unfold has_parent_b.
  induction t as [|[i n] r IH]; intros id; simpl; [reflexivity|].
  rewrite IH. reflexivity.
Qed.

(** ** counting *)

Lemma cnt_app : forall id a b, cnt id (a ++ b) = cnt id a + cnt id b.
Proof. induction a as [|e r IH]; intros b; simpl; [reflexivity | rewrite IH; lia]. Qed.

Lemma cnt_zero_iff : forall id ch, cnt id ch = 0 <-> forall e, In e ch -> eref e <> RN id.
Proof.
  induction ch as [|e r IH]; simpl.
  - split; [intros _ e [] | reflexivity].
  - destruct (points_to id e) eqn:P.
    + split; [discriminate|]. intros H. exfalso. apply (H e); [left; reflexivity|].
      apply points_to_spec. exact P.
    + simpl. rewrite IH. split.
      * intros H x [<-|Hx]; [|apply H; exact Hx].
        intros Hx. apply points_to_spec in Hx. congruence.
      * intros H x Hx. apply H. right. exact Hx.
Qed.

Lemma cnt_pos_In : forall id ch, 0 < cnt id ch -> exists e, In e ch /\ eref e = RN id.
Proof.
  induction ch as [|e r IH]; simpl; [lia|].
  destruct (points_to id e) eqn:P.
  - intros _. exists e. split; [left; reflexivity | apply points_to_spec; exact P].
  - simpl. intros H. destruct (IH H) as [x [Hx1 Hx2]]. exists x. split; [right|]; assumption.
Qed.

Lemma In_cnt_pos : forall id ch e, In e ch -> eref e = RN id -> 0 < cnt id ch.
Proof.
  intros id ch e Hin He. destruct (cnt id ch) eqn:E; [|lia].
  exfalso. apply (proj1 (cnt_zero_iff id ch) E e Hin He).
Qed.

Lemma parents_zero_iff : forall t id,
  parents t id = 0 <-> forall j nd e, In (j, nd) t -> In e (cch nd) -> eref e <> RN id.
Proof.
  induction t as [|[i n] r IH]; intros id; simpl.
  - split; [intros _ j nd e [] | reflexivity].
  - split.
    + intros H j nd e [E|Hin] He.
      * inversion E; subst. apply (proj1 (cnt_zero_iff id (cch nd))); [lia | exact He].
      * apply (proj1 (IH id) ltac:(lia) j nd e Hin He).
    + intros H.
      assert (H1 : cnt id (cch n) = 0).
      { apply cnt_zero_iff. intros e He. apply (H i n e); [left; reflexivity | exact He]. }
      assert (H2 : parents r id = 0).
      { apply IH. intros j nd e Hin He. apply (H j nd e); [right; exact Hin | exact He]. }
      lia.
Qed.

Lemma parents_pos_In : forall t id, 0 < parents t id ->
  exists j nd e, In (j, nd) t /\ In e (cch nd) /\ eref e = RN id.
Proof.
  induction t as [|[i n] r IH]; intros id; simpl; [lia|].
  intros H. destruct (cnt id (cch n)) eqn:E.
  - destruct (IH id ltac:(lia)) as [j [nd [e [H1 [H2 H3]]]]].
    exists j, nd, e. split; [right|]; auto.
  - destruct (cnt_pos_In id (cch n) ltac:(lia)) as [e [H1 H2]].
    exists i, n, e. split; [left; reflexivity | auto].
Qed.

Lemma parents_ge_cnt : forall t id j nd, In (j, nd) t -> cnt id (cch nd) <= parents t id.
Proof.
  induction t as [|[i n] r IH]; intros id j nd Hin; simpl; [destruct Hin|].
  destruct Hin as [E|Hin]; [inversion E; subst; lia|].
  pose proof (IH id j nd Hin). lia.
Qed.

Lemma has_parent_b_false_iff : forall t id, has_parent_b t id = false <-> parents t id = 0.
Proof.
  intros t id. rewrite parents_zero_iff. unfold has_parent_b.
  rewrite <- not_true_iff_false, existsb_exists. split.
  - intros H j nd e Hin He Hr. apply H. exists (j, nd). split; [exact Hin|]. simpl.
    apply existsb_exists. exists e. split; [exact He | apply points_to_spec; exact Hr].
  - intros H [[j nd] [Hin E]]. simpl in E.
    apply existsb_exists in E. destruct E as [e [He P]]. apply points_to_spec in P.
    exact (H j nd e Hin He P).
Qed.

(** removing the entry of [id] removes exactly its children from the parent counts *)
Lemma parents_cremove : forall id t nd j, cfind t id = Some nd ->
  parents t j = cnt j (cch nd) + parents (cremove id t) j.
Proof.
  induction t as [|[i n] r IH]; intros nd j H; simpl in *; [discriminate|].
  destruct (Pos.eqb i id).
  - inversion H; subst. reflexivity.
  - simpl. rewrite (IH nd j H). lia.
Qed.

(** ** tokens *)

Lemma tok_eqb_eq : forall a b, tok_eqb a b = true <-> a = b.
Proof.
  intros [t1 e1] [t2 e2]. unfold tok_eqb. simpl. rewrite andb_true_iff, Nat.eqb_eq, edge_eqb_eq.
  split; [intros [-> ->]; reflexivity | intros H; inversion H; auto].
Qed.

Lemma owns_b_In : forall own x, owns_b own x = true <-> In x own.
Proof.
  intros own x. unfold owns_b. rewrite existsb_exists. split.
  - intros [y [Hy E]]. apply tok_eqb_eq in E. subst. exact Hy.
  - intros H. exists x. split; [exact H | apply tok_eqb_eq; reflexivity].
Qed.

Lemma owners_cons : forall o own id,
  owners (o :: own) id = (if points_to id (snd o) then 1 else 0) + owners own id.
Proof. reflexivity. Qed.

Lemma take_tok_owners : forall x own own' id, take_tok x own = Some own' ->
  owners own id = (if points_to id (snd x) then 1 else 0) + owners own' id.
Proof.
  induction own as [|y r IH]; intros own' id H; simpl in H; [discriminate|].
  destruct (tok_eqb x y) eqn:E.
  - apply tok_eqb_eq in E. subst y. inversion H; subst. apply owners_cons.
  - destruct (take_tok x r) as [r'|] eqn:Er; [|discriminate]. inversion H; subst.
    rewrite !owners_cons, (IH r' id eq_refl). lia.
Qed.

Lemma take_tok_In : forall x own own', take_tok x own = Some own' -> In x own.
Proof.
  induction own as [|y r IH]; intros own' H; simpl in H; [discriminate|].
  destruct (tok_eqb x y) eqn:E.
  - apply tok_eqb_eq in E. left. congruence.
  - destruct (take_tok x r) as [r'|] eqn:Er; [|discriminate]. right. eapply IH. reflexivity.
Qed.

Lemma take_tok_incl : forall x own own' o, take_tok x own = Some own' -> In o own' -> In o own.
Proof.
  induction own as [|y r IH]; intros own' o H Ho; simpl in H; [discriminate|].
  destruct (tok_eqb x y) eqn:E.
  - inversion H; subst. right. exact Ho.
  - destruct (take_tok x r) as [r'|] eqn:Er; [|discriminate]. inversion H; subst.
    destruct Ho as [<-|Ho]; [left; reflexivity | right; eapply IH; eauto].
Qed.

Lemma In_take_tok : forall x own, In x own -> exists own', take_tok x own = Some own'.
Proof.
  induction own as [|y r IH]; intros H; [destruct H|]. simpl.
  destruct (tok_eqb x y) eqn:E; [eauto|].
  destruct H as [H|H].
  - subst y. assert (X : tok_eqb x x = true) by (apply tok_eqb_eq; reflexivity). congruence.
  - destruct (IH H) as [r' Hr]. rewrite Hr. eauto.
Qed.

Lemma take_toks_owners : forall tid ch own own' id, take_toks tid ch own = Some own' ->
  owners own id = cnt id ch + owners own' id.
Proof.
  induction ch as [|e r IH]; intros own own' id H; simpl in H.
  - inversion H; subst. reflexivity.
  - simpl cnt. unfold points_to at 1. destruct (eref e) as [x|j] eqn:Er.
    + apply IH. exact H.
    + destruct (take_tok (tid, e) own) as [own1|] eqn:E1; [|discriminate].
      rewrite (take_tok_owners _ _ _ id E1), (IH own1 own' id H). simpl snd.
      unfold points_to. rewrite Er. lia.
Qed.

Lemma take_toks_incl : forall tid ch own own' o, take_toks tid ch own = Some own' ->
  In o own' -> In o own.
Proof.
  induction ch as [|e r IH]; intros own own' o H Ho; simpl in H.
  - inversion H; subst. exact Ho.
  - destruct (eref e) as [x|j].
    + eapply IH; eauto.
    + destruct (take_tok (tid, e) own) as [own1|] eqn:E1; [|discriminate].
      eapply take_tok_incl; [exact E1|]. eapply IH; eauto.
Qed.

(** every inner child edge was owned by the calling thread *)
Lemma take_toks_owned : forall tid ch own own' e, take_toks tid ch own = Some own' ->
  In e ch -> (exists id, eref e = RN id) -> In (tid, e) own.
Proof.
  induction ch as [|x r IH]; intros own own' e H He Hi; simpl in H; [destruct He|].
  destruct He as [<-|He].
  - destruct Hi as [id Hi]. rewrite Hi in H.
    destruct (take_tok (tid, x) own) as [own1|] eqn:E1; [|discriminate].
    eapply take_tok_In. exact E1.
  - destruct (eref x) as [y|j].
    + eapply IH; eauto.
    + destruct (take_tok (tid, x) own) as [own1|] eqn:E1; [|discriminate].
      eapply take_tok_incl; [exact E1|]. eapply IH; eauto.
Qed.

Lemma owners_zero_iff : forall own id,
  owners own id = 0 <-> forall o, In o own -> eref (snd o) <> RN id.
Proof.
  intros own id. unfold owners. rewrite cnt_zero_iff. split.
  - intros H o Ho. apply H. apply in_map. exact Ho.
  - intros H e He. apply in_map_iff in He. destruct He as [o [<- Ho]]. apply H. exact Ho.
Qed.

Lemma owners_pos_In : forall own id, 0 < owners own id ->
  exists o, In o own /\ eref (snd o) = RN id.
Proof.
  intros own id H. destruct (cnt_pos_In id _ H) as [e [He Hr]].
  apply in_map_iff in He. destruct He as [o [<- Ho]]. eauto.
Qed.

Lemma In_owners_pos : forall own id o, In o own -> eref (snd o) = RN id -> 0 < owners own id.
Proof. intros own id o Ho Hr. apply (In_cnt_pos id _ (snd o)); [apply in_map; exact Ho | exact Hr]. Qed.

(** ** kind-dependent definitions *)

Section WithKind.
Variable k : kind.
Variable terms : list (N * N).
Variable nl : nat.

Notation crlevel := (crlevel nl).
Notation cref_ok_b := (cref_ok_b terms).
Notation node_pre_b := (node_pre_b k terms nl).
Notation edge_ok_b := (edge_ok_b k terms).

Lemma crlevel_cn_shape : forall t r, crlevel (cn_shape t) r = crlevel t r.
Proof.
  intros t [x|id]; simpl; [reflexivity|]. rewrite cfind_cn_shape.
  destruct (cfind t id); reflexivity.
Qed.

Lemma cref_ok_b_cn_shape : forall t r, cref_ok_b (cn_shape t) r = cref_ok_b t r.
Proof.
  intros t [x|id]; simpl; [reflexivity|]. rewrite cfind_cn_shape.
  destruct (cfind t id); reflexivity.
Qed.

Lemma node_pre_b_cn_shape : forall t lvl ch, node_pre_b (cn_shape t) lvl ch = node_pre_b t lvl ch.
Proof.
  intros t lvl ch. unfold Conc.node_pre_b. f_equal. f_equal. f_equal.
  apply forallb_ext. intros e. rewrite cref_ok_b_cn_shape, crlevel_cn_shape. reflexivity.
Qed.

Lemma edge_ok_b_cn_shape : forall t e, edge_ok_b (cn_shape t) e = edge_ok_b t e.
Proof. intros t e. unfold Conc.edge_ok_b. rewrite cref_ok_b_cn_shape. reflexivity. Qed.

Lemma find_shape_cn_shape : forall t lvl ch, find_shape (cn_shape t) lvl ch = find_shape t lvl ch.
Proof.
  induction t as [|[i n] r IH]; intros lvl ch; simpl; [reflexivity|].
  rewrite IH. reflexivity.
Qed.

Lemma node_pre_b_congr : forall t t' lvl ch, cn_shape t = cn_shape t' ->
  node_pre_b t lvl ch = node_pre_b t' lvl ch.
Proof. intros t t' lvl ch E. rewrite <- (node_pre_b_cn_shape t), E. apply node_pre_b_cn_shape. Qed.

Lemma edge_ok_b_congr : forall t t' e, cn_shape t = cn_shape t' -> edge_ok_b t e = edge_ok_b t' e.
Proof. intros t t' e E. rewrite <- (edge_ok_b_cn_shape t), E. apply edge_ok_b_cn_shape. Qed.

Lemma find_shape_congr : forall t t' lvl ch, cn_shape t = cn_shape t' ->
  find_shape t lvl ch = find_shape t' lvl ch.
Proof. intros t t' lvl ch E. rewrite <- (find_shape_cn_shape t), E. apply find_shape_cn_shape. Qed.

(** the lookup finds an entry of that shape; [None] = no entry has it *)
Lemma find_shape_Some : forall t lvl ch id, NoDup (map fst t) -> find_shape t lvl ch = Some id ->
  exists nd, cfind t id = Some nd /\ cl nd = lvl /\ cch nd = ch.
Proof.
  induction t as [|[i n] r IH]; intros lvl ch id Hnd H; simpl in H; [discriminate|].
  inversion Hnd as [|? ? Hi Hr]; subst.
  destruct (Nat.eqb (cl n) lvl && edges_eqb (cch n) ch) eqn:E.
  - inversion H; subst. apply andb_true_iff in E. destruct E as [E1 E2].
    apply Nat.eqb_eq in E1. apply edges_eqb_eq in E2.
    exists n. simpl. rewrite Pos.eqb_refl. auto.
  - destruct (IH lvl ch id Hr H) as [nd [F [H1 H2]]]. exists nd. split; [|auto].
    simpl. destruct (Pos.eqb_spec i id) as [->|_]; [|exact F].
    exfalso. apply Hi. eapply cfind_Some_keys. exact F.
Qed.

Lemma find_shape_None : forall t lvl ch, find_shape t lvl ch = None ->
  forall id nd, In (id, nd) t -> ~ (cl nd = lvl /\ cch nd = ch).
Proof.
  induction t as [|[i n] r IH]; intros lvl ch H id nd Hin; simpl in *; [destruct Hin|].
  destruct (Nat.eqb (cl n) lvl && edges_eqb (cch n) ch) eqn:E; [discriminate|].
  destruct Hin as [Hin|Hin].
  - inversion Hin; subst. intros [H1 H2].
    assert (X : Nat.eqb (cl nd) lvl && edges_eqb (cch nd) ch = true).
    { apply andb_true_iff. split; [apply Nat.eqb_eq; exact H1 | apply edges_eqb_eq; exact H2]. }
    congruence.
  - apply (IH lvl ch H id nd Hin).
Qed.

Lemma find_shape_complete : forall t lvl ch id nd, cfind t id = Some nd -> cl nd = lvl -> cch nd = ch ->
  exists id', find_shape t lvl ch = Some id'.
Proof.
  intros t lvl ch id nd F H1 H2. destruct (find_shape t lvl ch) as [id'|] eqn:E; [eauto|].
  exfalso. apply (find_shape_None t lvl ch E id nd (cfind_In _ _ _ F)). auto.
Qed.

Lemma node_pre_b_spec : forall t lvl ch, node_pre_b t lvl ch = true <->
  length ch = arity k /\ lvl < nl /\
  (forall e, In e ch -> cref_ok_b t (eref e) = true /\ lvl < crlevel t (eref e)) /\
  creduced_b k terms ch = true /\ ctags_ok_b k ch = true.
Proof.
  intros t lvl ch. unfold Conc.node_pre_b.
  rewrite !andb_true_iff, Nat.eqb_eq, Nat.ltb_lt, forallb_forall. split.
  - intros [[[[H1 H2] H3] H4] H5]. split; [exact H1|]. split; [exact H2|]. split; [|auto].
    intros e He. specialize (H3 e He). apply andb_true_iff in H3. rewrite Nat.ltb_lt in H3. exact H3.
  - intros (H1 & H2 & H3 & H4 & H5). repeat split; auto.
    intros e He. apply andb_true_iff. rewrite Nat.ltb_lt. apply (H3 e He).
Qed.

(** [node_pre_b] only looks at the entries of the children *)
Lemma node_pre_b_ext : forall t t' lvl ch,
  (forall e id nd, In e ch -> eref e = RN id -> cfind t id = Some nd ->
     exists nd', cfind t' id = Some nd' /\ cl nd' = cl nd) ->
  node_pre_b t lvl ch = true -> node_pre_b t' lvl ch = true.
Proof.
  intros t t' lvl ch Hext H. apply node_pre_b_spec in H. destruct H as (H1 & H2 & H3 & H45).
  apply node_pre_b_spec. split; [exact H1|]. split; [exact H2|]. split; [|exact H45].
  intros e He. destruct (H3 e He) as [Ho Hl].
  destruct (eref e) as [x|id] eqn:Er; simpl in *; [auto|].
  destruct (cfind t id) as [nd|] eqn:F; [|discriminate].
  destruct (Hext e id nd He Er F) as [nd' [F' Hc]]. rewrite F', Hc. auto.
Qed.

Lemma edge_ok_b_ext : forall t t' e,
  (forall id nd, eref e = RN id -> cfind t id = Some nd -> exists nd', cfind t' id = Some nd') ->
  edge_ok_b t e = true -> edge_ok_b t' e = true.
Proof.
  intros t t' e Hext H. unfold Conc.edge_ok_b in *. apply andb_true_iff in H. destruct H as [H1 H2].
  apply andb_true_iff. split; [|exact H2].
  destruct (eref e) as [x|id] eqn:Er; simpl in *; [exact H1|].
  destruct (cfind t id) as [nd|] eqn:F; [|discriminate].
  destruct (Hext id nd eq_refl F) as [nd' F']. rewrite F'. reflexivity.
Qed.

Lemma edge_ok_b_inner : forall t e id, edge_ok_b t e = true -> eref e = RN id ->
  exists nd, cfind t id = Some nd.
Proof.
  intros t e id H Er. unfold Conc.edge_ok_b in H. apply andb_true_iff in H. destruct H as [H _].
  rewrite Er in H. simpl in H. destruct (cfind t id) as [nd|]; [eauto | discriminate].
Qed.

(** the children named by a node that passes [node_pre_b] are stored below it *)
Lemma node_pre_b_child : forall t lvl ch e id, node_pre_b t lvl ch = true -> In e ch -> eref e = RN id ->
  exists nd, cfind t id = Some nd /\ lvl < cl nd.
Proof.
  intros t lvl ch e id H He Er. apply node_pre_b_spec in H. destruct H as (_ & _ & H3 & _).
  destruct (H3 e He) as [Ho Hl]. rewrite Er in Ho, Hl. simpl in Ho, Hl.
  destruct (cfind t id) as [nd|]; [|discriminate]. exists nd. split; [reflexivity | exact Hl].
Qed.

(** ... and are valid edge values *)
Lemma node_pre_b_child_ok : forall t lvl ch e, node_pre_b t lvl ch = true -> In e ch ->
  edge_ok_b t e = true.
Proof.
  intros t lvl ch e H He. apply node_pre_b_spec in H. destruct H as (_ & _ & H3 & _ & H5).
  unfold Conc.edge_ok_b. rewrite (proj1 (H3 e He)). simpl.
  unfold ctags_ok_b in H5. destruct k; try reflexivity;
    rewrite forallb_forall in H5; apply (H5 e He).
Qed.

Lemma node_pre_b_cnt_absent : forall t lvl ch id, node_pre_b t lvl ch = true -> cfind t id = None ->
  cnt id ch = 0.
Proof.
  intros t lvl ch id H F. apply cnt_zero_iff. intros e He Er.
  destruct (node_pre_b_child t lvl ch e id H He Er) as [nd [F' _]]. congruence.
Qed.

(** ** the structural invariant of the table *)

Record TInv (t : ctable) : Prop := mkTInv {
  ti_nodup : NoDup (map fst t);
  ti_pre : forall id nd, cfind t id = Some nd -> node_pre_b t (cl nd) (cch nd) = true;
  ti_uniq : forall i1 i2 n1 n2, cfind t i1 = Some n1 -> cfind t i2 = Some n2 ->
      cl n1 = cl n2 -> cch n1 = cch n2 -> i1 = i2
}.

Lemma TInv_nil : TInv [].
Proof. constructor; simpl; [constructor | discriminate | discriminate]. Qed.

Lemma TInv_congr : forall t t', cn_shape t = cn_shape t' -> TInv t -> TInv t'.
Proof.
  intros t t' E [H1 H2 H3]. constructor.
  - rewrite <- (keys_cn_shape t'), <- E, keys_cn_shape. exact H1.
  - intros id nd' F'. destruct (shape_eq_find t' t id nd' (eq_sym E) F') as [nd [F [Hl Hc]]].
    rewrite <- Hl, <- Hc, <- (node_pre_b_congr t t' _ _ E). apply (H2 id nd F).
  - intros i1 i2 n1 n2 F1 F2 Hl Hc.
    destruct (shape_eq_find t' t i1 n1 (eq_sym E) F1) as [m1 [G1 [L1 C1]]].
    destruct (shape_eq_find t' t i2 n2 (eq_sym E) F2) as [m2 [G2 [L2 C2]]].
    apply (H3 i1 i2 m1 m2 G1 G2); congruence.
Qed.

Lemma TInv_parents_absent : forall t id, TInv t -> cfind t id = None -> parents t id = 0.
Proof.
  intros t id H F. apply parents_zero_iff. intros j nd e Hin He Er.
  pose proof (In_cfind t j nd (ti_nodup t H) Hin) as Fj.
  destruct (node_pre_b_child t _ _ e id (ti_pre t H j nd Fj) He Er) as [nd' [F' _]]. congruence.
Qed.

(** insertion of a fresh node that passes the caller's precondition and whose shape
    is not yet in the table *)
Lemma TInv_insert : forall t lvl ch fr rc, TInv t ->
  node_pre_b t lvl ch = true -> find_shape t lvl ch = None -> cfind t fr = None ->
  TInv ((fr, mkC lvl ch rc) :: t).
Proof.
  intros t lvl ch fr rc H Hpre Hfs Hfr.
  assert (Hext : forall l c, node_pre_b t l c = true ->
                   node_pre_b ((fr, mkC lvl ch rc) :: t) l c = true).
  { intros l c. apply node_pre_b_ext. intros e id nd _ _ F. exists nd. split; [|reflexivity].
    rewrite cfind_cons. destruct (Pos.eqb_spec fr id) as [->|_]; [congruence | exact F]. }
  constructor.
  - simpl. constructor; [apply cfind_None_keys; exact Hfr | apply (ti_nodup t H)].
  - intros id nd F. rewrite cfind_cons in F. destruct (Pos.eqb_spec fr id) as [->|Hne].
    + inversion F; subst. simpl. apply Hext. exact Hpre.
    + apply Hext. apply (ti_pre t H id nd F).
  - intros i1 i2 n1 n2 F1 F2 Hl Hc. rewrite cfind_cons in F1, F2.
    destruct (Pos.eqb_spec fr i1) as [E1|N1], (Pos.eqb_spec fr i2) as [E2|N2].
    + congruence.
    + inversion F1; subst. simpl in *. exfalso.
      apply (find_shape_None t _ _ Hfs i2 n2 (cfind_In _ _ _ F2)). auto.
    + inversion F2; subst. simpl in *. exfalso.
      apply (find_shape_None t _ _ Hfs i1 n1 (cfind_In _ _ _ F1)). auto.
    + apply (ti_uniq t H i1 i2 n1 n2 F1 F2 Hl Hc).
Qed.

(** removal of a node that no stored node refers to *)
Lemma TInv_remove : forall t id, TInv t -> parents t id = 0 -> TInv (cremove id t).
Proof.
  intros t id H Hp.
  pose proof (ti_nodup t H) as Hnd.
  assert (Hf : forall j nd, cfind (cremove id t) j = Some nd -> cfind t j = Some nd /\ j <> id).
  { intros j nd F. rewrite (cfind_cremove id t j Hnd) in F.
    destruct (Pos.eqb_spec j id); [discriminate | auto]. }
  constructor.
  - apply cremove_nodup. exact Hnd.
  - intros j nd F. destruct (Hf j nd F) as [F' Hne].
    apply (node_pre_b_ext t); [|apply (ti_pre t H j nd F')].
    intros e c ndc He Er Fc. exists ndc. split; [|reflexivity].
    rewrite (cfind_cremove id t c Hnd). destruct (Pos.eqb_spec c id) as [->|_]; [|exact Fc].
    exfalso. apply (proj1 (parents_zero_iff t id) Hp j nd e (cfind_In _ _ _ F') He Er).
  - intros i1 i2 n1 n2 F1 F2. destruct (Hf i1 n1 F1) as [G1 _]. destruct (Hf i2 n2 F2) as [G2 _].
    apply (ti_uniq t H i1 i2 n1 n2 G1 G2).
Qed.

End WithKind.
