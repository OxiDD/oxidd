(** * C07 — the log-level replay ([lstep]) of the cache protocol

    [ksim] / [ktrace_sim]: every behaviour of the full model (any schedule, the code's
      protocol) projects onto a log that [lstep] accepts: a log the driver's replay REJECTS
      is not a behaviour of the proved model.
    [lstep_inv] / [lrun_inv]: conversely every log that [lstep] accepts keeps, at every
      point, all determined cache entries free of dangling edges and the buckets held by
      the collector empty: a log the replay ACCEPTS exhibits no dangling weak edge. *)

From Coq Require Import List NArith PArith Bool Arith Lia.
From OxiVerif Require Import Base.ListFacts DD.Table DD.TableProofs
  Mgr.Conc Mgr.ConcBase Mgr.ConcProofs Mgr.ConcCache Mgr.ConcCacheProofs Mgr.ConcCacheThms.
Import ListNotations.

Section Log.
Variable k : kind.
Variable terms : list (N * N).
Variable nl : nat.

Notation step := (step k terms nl).
Notation step_tbl := (step_tbl k terms nl).
Notation edge_ok_b := (edge_ok_b k terms).
Notation CInv := (CInv k terms nl).
Notation KInv := (KInv k terms nl).
Notation TInv := (TInv k terms nl).
Notation kstep := (kstep k terms nl).
Notation lstep := (lstep k terms nl).
Notation lrun := (lrun k terms nl).
Notation ledges_ok_b := (ledges_ok_b k terms).

(** ** abstraction: what the log-level state knows about the full state *)

Definition lent_abs (le : lentry) (o : option centry) : Prop :=
  match le with
  | LUnknown => True
  | LEmpty => o = None
  | LFull a v => exists c, o = Some c /\ ce_args c = a /\ ce_vals c = v
  end.

(** the end of the sweep is not logged *)
Definition phase_abs (s : kst) (l : lst) : Prop :=
  (lph l = kph s /\ lnext l = knext s) \/ (kph s = GUnlock /\ knext s = 0 /\ lph l = GSweep).

Record labs (s : kst) (l : lst) : Prop := mkLabs {
  la_t : lt l = cn_shape (cn (kc s));
  la_len : length (lb l) = length (kb s);
  la_ent : forall b le bk, nth_error (lb l) b = Some le -> nth_error (kb s) b = Some bk ->
      lent_abs le (b_ent bk);
  la_ph : phase_abs s l
}.

(** the log-level state that knows nothing about the cache contents *)
Definition labs_unknown (s : kst) : lst :=
  mkL (cn_shape (cn (kc s))) (repeat LUnknown (length (kb s))) (kph s) (knext s).

Lemma nth_error_repeat' : forall (A : Type) (x : A) n i, i < n -> nth_error (repeat x n) i = Some x.
Proof. intros A x n i H. exact (nth_error_repeat x H). Qed.

Theorem labs_of_state : forall s, labs s (labs_unknown s).
Proof.
  intros s. constructor; simpl.
  - reflexivity.
  - apply repeat_length.
  - intros b le bk Hn _. apply nth_error_repeat_inv in Hn. subst. exact I.
  - left. auto.
Qed.

Lemma claimed_abs : forall s l b, labs s l ->
  gc_claimed_b (lph l) (lnext l) (length (lb l)) b = gc_claimed_b (kph s) (knext s) (length (kb s)) b.
Proof.
  intros s l b A. rewrite (la_len s l A).
  destruct (la_ph s l A) as [[-> ->]|[-> [-> ->]]]; [reflexivity|].
  unfold gc_claimed_b. simpl. reflexivity.
Qed.

Lemma labs_nth : forall s l b bk, labs s l -> nth_error (kb s) b = Some bk ->
  exists le, nth_error (lb l) b = Some le.
Proof.
  intros s l b bk A Hn. destruct (nth_error (lb l) b) as [le|] eqn:E; [eauto|].
  apply nth_error_None in E. rewrite (la_len s l A) in E.
  assert (b < length (kb s)) by (apply nth_error_Some; congruence). lia.
Qed.

(** only the lock bit of a bucket changes *)
Lemma labs_set_bit : forall s l l' b bk x c' ph nx pk wk, labs s l -> nth_error (kb s) b = Some bk ->
  cn_shape (cn c') = cn_shape (cn (kc s)) -> lt l' = lt l -> lb l' = lb l ->
  phase_abs (mkK c' (upd_nth (kb s) b (set_bit bk x)) ph nx pk wk) l' ->
  labs (mkK c' (upd_nth (kb s) b (set_bit bk x)) ph nx pk wk) l'.
Proof.
  intros s l l' b bk x c' ph nx pk wk A Hn Hsh Elt Elb Hph. constructor; simpl.
  - rewrite Hsh, Elt. apply (la_t s l A).
  - rewrite length_upd_nth, Elb. apply (la_len s l A).
  - rewrite Elb. intros b' le bk' Hl Hn'. apply nth_error_upd_nth in Hn'.
    destruct Hn' as [[<- ->]|[_ Hn']]; [apply (la_ent s l A b le bk Hl Hn) | apply (la_ent s l A b' le bk' Hl Hn')].
  - exact Hph.
Qed.

Lemma labs_upd : forall s l b bk' le ph nx pk wk lph' lnx', labs s l -> lent_abs le (b_ent bk') ->
  phase_abs (mkK (kc s) (upd_nth (kb s) b bk') ph nx pk wk) (mkL (lt l) (upd_nth (lb l) b le) lph' lnx') ->
  labs (mkK (kc s) (upd_nth (kb s) b bk') ph nx pk wk) (mkL (lt l) (upd_nth (lb l) b le) lph' lnx').
Proof.
  intros s l b bk' le ph nx pk wk lph' lnx' A Hab Hph. constructor; simpl.
  - apply (la_t s l A).
  - rewrite !length_upd_nth. apply (la_len s l A).
  - intros b' le' bk1 Hl' Hn'. apply nth_error_upd_nth in Hl'. apply nth_error_upd_nth in Hn'.
    destruct Hl' as [[<- ->]|[Hne Hl']]; destruct Hn' as [[E ->]|[Hne' Hn']]; try congruence.
    apply (la_ent s l A b' le' bk1 Hl' Hn').
  - exact Hph.
Qed.

Lemma entry_edges_ok_shape : forall t c, forallb (edge_ok_b t) (ce_edges c) = true ->
  ledges_ok_b (cn_shape t) (ce_args c) (ce_vals c) = true.
Proof.
  intros t c H. unfold ConcCache.ledges_ok_b. fold (ce_edges c). rewrite forallb_forall in *.
  intros e He. rewrite (edge_ok_b_cn_shape k terms). apply H. exact He.
Qed.

(** 1. the log-level replay simulates the full model *)
Theorem ksim : forall s l a s' r, KInv s -> labs s l -> kstep good s a = Some (s', r) ->
  match kerase s a r with
  | Some la => exists l', lstep l la = Some l' /\ labs s' l'
  | None => labs s' l
  end.
Proof.
  intros s l a s' r H A Hs.
  destruct (kstep_cases k terms nl good s a s' r Hs); simpl kerase; try exact A.
  - (* action of Mgr/Conc.v *)
    pose proof (erase_sim k terms nl _ _ _ _ (ki_c k terms nl s H) S0) as He.
    destruct (erase a0) as [ta|] eqn:Ea.
    + assert (Hg' : is_tgc ta && negb (gphase_eqb (lph l) GSweep) = false).
      { destruct a0; simpl in Ea; inversion Ea; subst; simpl; auto.
        pose proof (Hg eq_refl) as Hp.
        destruct (la_ph s l A) as [[-> _]|[Hp' _]]; [rewrite Hp; reflexivity | congruence]. }
      unfold ConcCache.lstep. rewrite Hg', (la_t s l A), He. eexists. split; [reflexivity|].
      constructor; simpl; try apply A. reflexivity.
    + destruct He as [He _]. constructor; simpl; try apply A. rewrite He. apply (la_t s l A).
  - (* try_lock *)
    apply (labs_set_bit s l); auto. apply (la_ph s l A).
  - (* add *)
    pose proof (worker_not_claimed k terms nl s tid b H Hc) as Hnc. unfold claimed in Hnc.
    destruct (labs_nth s l b bk A Hn) as [le Hl].
    unfold ConcCache.lstep. rewrite (claimed_abs s l b A).
    destruct (gc_claimed_b (kph s) (knext s) (length (kb s)) b); [congruence|]. rewrite Hl.
    assert (Hok : ledges_ok_b (lt l) (ce_args c) (ce_vals c) = true).
    { rewrite (la_t s l A). apply entry_edges_ok_shape. apply forallb_forall.
      intros e He. apply (addable_ok k terms nl); [apply (ki_c k terms nl s H) | apply Ha; exact He]. }
    rewrite Hok. eexists. split; [reflexivity|].
    apply labs_upd; [exact A | simpl; exists c; auto | apply (la_ph s l A)].
  - (* get: a hit *)
    rewrite Hn, He.
    pose proof (worker_not_claimed k terms nl s tid b H Hc) as Hnc. unfold claimed in Hnc.
    destruct (labs_nth s l b bk A Hn) as [le Hl].
    unfold ConcCache.lstep. rewrite (claimed_abs s l b A).
    destruct (gc_claimed_b (kph s) (knext s) (length (kb s)) b); [congruence|]. rewrite Hl.
    assert (Hok : ledges_ok_b (lt l) (ce_args c) (ce_vals c) = true).
    { rewrite (la_t s l A). apply entry_edges_ok_shape. apply forallb_forall.
      intros e Hin. apply (ki_ent k terms nl s H b bk c e Hn He Hin). }
    rewrite Hok.
    pose proof (la_ent s l A b le bk Hl Hn) as Hab. rewrite He in Hab.
    destruct le as [| |a0 v0]; simpl in Hab.
    + eexists. split; [reflexivity|]. constructor; simpl.
      * rewrite retain_all_shape. apply (la_t s l A).
      * rewrite length_upd_nth. apply (la_len s l A).
      * intros b' le' bk' Hl' Hn'. apply nth_error_upd_nth in Hl'.
        destruct Hl' as [[<- ->]|[Hne Hl']]; [|apply (la_ent s l A b' le' bk' Hl' Hn')].
        rewrite Hn in Hn'. inversion Hn'; subst bk'. simpl. exists c. auto.
      * apply (la_ph s l A).
    + discriminate.
    + destruct Hab as [c' [Ec [Ea Ev]]]. inversion Ec; subst c'. subst a0 v0.
      rewrite (proj2 (edges_eqb_eq _ _) eq_refl), (proj2 (edges_eqb_eq _ _) eq_refl). simpl.
      eexists. split; [reflexivity|]. constructor; simpl; try apply A.
      rewrite retain_all_shape. apply (la_t s l A).
  - (* unlock by a worker *)
    apply (labs_set_bit s l); auto. apply (la_ph s l A).
  - (* gc begins *)
    unfold ConcCache.lstep.
    destruct (la_ph s l A) as [[E1 E2]|[E1 _]]; [|congruence]. rewrite E1, Hp, (la_len s l A), Nat.eqb_refl.
    eexists. split; [reflexivity|]. constructor; simpl; try apply A. left. auto.
  - (* peek *)
    destruct (la_ph s l A) as [[E1 E2]|[E1 _]]; [|congruence].
    constructor; simpl; [apply (la_t s l A) | apply (la_len s l A) | apply (la_ent s l A) |].
    left. simpl. rewrite <- Hp. auto.
  - (* pre_gc: one bucket *)
    replace (match b_ent bk with Some _ => _ | None => _ end) with (mkB None true)
      by (destruct (b_ent bk); reflexivity).
    assert (Hlt : knext s < length (kb s)) by (apply nth_error_Some; congruence).
    destruct (la_ph s l A) as [[E1 E2]|[E1 _]]; [|congruence].
    unfold ConcCache.lstep. rewrite E1, Hp, E2, (la_len s l A).
    rewrite Nat.eqb_refl, (proj2 (Nat.ltb_lt _ _) Hlt). simpl.
    eexists. split; [reflexivity|]. apply labs_upd; [exact A | reflexivity | left; auto].
  - (* the sweep begins *)
    destruct (la_ph s l A) as [[E1 E2]|[E1 _]]; [|congruence].
    unfold ConcCache.lstep. rewrite E1, Hp, E2, (la_len s l A), En, Nat.eqb_refl.
    eexists. split; [reflexivity|]. constructor; simpl; try apply A. left. auto.
  - (* the sweep is done: not logged *)
    destruct (la_ph s l A) as [[E1 E2]|[E1 _]]; [|congruence].
    constructor; simpl; try apply A. right. rewrite E1, Hp. auto.
  - (* post_gc: one bucket *)
    assert (Hlt : knext s < length (kb s)) by (apply nth_error_Some; congruence).
    unfold ConcCache.lstep. rewrite (la_len s l A).
    destruct (la_ph s l A) as [[E1 E2]|[_ [E2 E3]]].
    + rewrite E1, Hp, E2, Nat.eqb_refl, (proj2 (Nat.ltb_lt _ _) Hlt). simpl.
      eexists. split; [reflexivity|]. apply (labs_set_bit s l); auto. left. simpl. auto.
    + rewrite E3, E2. rewrite E2 in Hlt. simpl. rewrite (proj2 (Nat.ltb_lt _ _) Hlt).
      eexists. split; [reflexivity|]. rewrite E2 in Hn. apply (labs_set_bit s l); auto.
      left. simpl. auto.
  - (* gc ends *)
    unfold ConcCache.lstep. rewrite (la_len s l A).
    destruct (la_ph s l A) as [[E1 E2]|[_ [E2 E3]]].
    + rewrite E1, Hp, E2, En, Nat.eqb_refl.
      eexists. split; [reflexivity|]. constructor; simpl; try apply A. left. auto.
    + rewrite E3. rewrite E2 in En. rewrite <- En. simpl.
      eexists. split; [reflexivity|]. constructor; simpl; try apply A. left. auto.
Qed.

(** the log of a schedule: the projected events of the enabled actions, in order *)
Fixpoint ktrace (s : kst) (sched : list kact) : option (kst * list lact) :=
  match sched with
  | [] => Some (s, [])
  | a :: rest =>
    match kstep good s a with
    | None => None
    | Some (s1, r) =>
      match ktrace s1 rest with
      | None => None
      | Some (s', log) =>
        Some (s', match kerase s a r with Some la => la :: log | None => log end)
      end
    end
  end.

Theorem ktrace_sim : forall sched s l s' log, KInv s -> labs s l -> ktrace s sched = Some (s', log) ->
  exists l', lrun l log = Some l' /\ labs s' l'.
Proof.
  induction sched as [|a rest IH]; intros s l s' log H A Ht; simpl in Ht.
  - inversion Ht; subst. exists l. split; [reflexivity | exact A].
  - destruct (kstep good s a) as [[s1 r]|] eqn:Hs; [|discriminate].
    destruct (ktrace s1 rest) as [[s2 log2]|] eqn:Hr; [|discriminate]. inversion Ht; subst.
    pose proof (kstep_inv k terms nl _ _ _ _ H Hs) as H1.
    pose proof (ksim s l a s1 r H A Hs) as Hk.
    destruct (kerase s a r) as [la|].
    + destruct Hk as [l1 [Hl A1]]. simpl. rewrite Hl. apply (IH s1 l1 s' log2 H1 A1 Hr).
    + apply (IH s1 l s' log2 H1 Hk Hr).
Qed.

(** ** 2. what an accepted log guarantees *)

Record LInv (l : lst) : Prop := mkLInv {
  li_t : TInv (lt l);
  (* NO DANGLING WEAK EDGE in any entry the log determines *)
  li_ent : forall b a v, nth_error (lb l) b = Some (LFull a v) -> ledges_ok_b (lt l) a v = true;
  (* buckets held by the collector are empty *)
  li_gc : forall b le, nth_error (lb l) b = Some le ->
      gc_claimed_b (lph l) (lnext l) (length (lb l)) b = true -> le = LEmpty
}.

Lemma step_tbl_goi_keeps_ok : forall t lvl ch fr t' r e,
  step_tbl t (TGoi lvl ch fr) = Some (t', r) -> edge_ok_b t e = true -> edge_ok_b t' e = true.
Proof.
  intros t lvl ch fr t' r e Hs Hok. unfold Conc.step_tbl in Hs.
  destruct (node_pre_b k terms nl t lvl ch); [|discriminate].
  destruct (find_shape t lvl ch); [inversion Hs; subst; exact Hok|].
  destruct (cfind t fr) eqn:F; [discriminate|]. inversion Hs; subst.
  apply (edge_ok_b_ext k terms t); [|exact Hok].
  intros id nd _ Fi. exists nd. rewrite cfind_cons.
  destruct (Pos.eqb_spec fr id) as [E|_]; [congruence | exact Fi].
Qed.

Lemma linv_full : forall l b a v, LInv l ->
  gc_claimed_b (lph l) (lnext l) (length (lb l)) b = false -> ledges_ok_b (lt l) a v = true ->
  LInv (mkL (lt l) (upd_nth (lb l) b (LFull a v)) (lph l) (lnext l)).
Proof.
  intros l b a v H C0 Hok. constructor; simpl; try rewrite length_upd_nth.
  - apply (li_t l H).
  - intros b' a' v' Hn. apply nth_error_upd_nth in Hn. destruct Hn as [[_ E]|[_ Hn]].
    + inversion E; subst. exact Hok.
    + apply (li_ent l H b' a' v' Hn).
  - intros b' le Hn C. apply nth_error_upd_nth in Hn. destruct Hn as [[<- _]|[_ Hn]]; [congruence|].
    apply (li_gc l H b' le Hn C).
Qed.

Theorem lstep_inv : forall l a l', LInv l -> lstep l a = Some l' -> LInv l'.
Proof.
  intros l a l' H Hs. destruct a as [a0|n|b| |b| |b a v|b a v]; unfold ConcCache.lstep in Hs.
  - destruct (is_tgc a0 && negb (gphase_eqb (lph l) GSweep)) eqn:G; [discriminate|].
    destruct (step_tbl (lt l) a0) as [[t' r]|] eqn:S0; [|discriminate]. inversion Hs; subst.
    constructor; simpl.
    + apply (step_tbl_inv k terms nl _ _ _ _ (li_t l H) S0).
    + intros b a v Hn. destruct a0 as [lvl ch fr|id].
      * pose proof (li_ent l H b a v Hn) as Hok. unfold ConcCache.ledges_ok_b in *.
        rewrite forallb_forall in *. intros e He.
        apply (step_tbl_goi_keeps_ok _ _ _ _ _ _ e S0). apply Hok. exact He.
      * simpl in G. assert (Hp : lph l = GSweep) by (destruct (lph l); simpl in G; congruence).
        assert (C : gc_claimed_b (lph l) (lnext l) (length (lb l)) b = true).
        { rewrite Hp. unfold gc_claimed_b. apply andb_true_iff. split; [|reflexivity].
          apply Nat.ltb_lt. apply nth_error_Some. congruence. }
        pose proof (li_gc l H b _ Hn C). discriminate.
    + apply (li_gc l H).
  - destruct (lph l) eqn:Hp; try discriminate. destruct (Nat.eqb n (length (lb l))); [|discriminate].
    inversion Hs; subst. constructor; simpl; try apply H.
    intros b le Hn C. gcc. lia.
  - destruct (lph l) eqn:Hp; try discriminate.
    destruct (Nat.eqb b (lnext l) && Nat.ltb b (length (lb l))) eqn:G; [|discriminate].
    inversion Hs; subst. apply andb_true_iff in G. destruct G as [G1 G2].
    apply Nat.eqb_eq in G1. apply Nat.ltb_lt in G2.
    constructor; simpl; try rewrite length_upd_nth.
    + apply (li_t l H).
    + intros b' a v Hn. apply nth_error_upd_nth in Hn. destruct Hn as [[_ E]|[_ Hn]]; [discriminate|].
      apply (li_ent l H b' a v Hn).
    + intros b' le Hn C. apply nth_error_upd_nth in Hn. destruct Hn as [[_ E]|[Hne Hn]]; [exact E|].
      apply (li_gc l H b' le Hn). rewrite Hp. gcc; lia.
  - destruct (lph l) eqn:Hp; try discriminate.
    destruct (Nat.eqb_spec (lnext l) (length (lb l))) as [En|]; [|discriminate].
    inversion Hs; subst. constructor; simpl; try apply H.
    intros b le Hn C. apply (li_gc l H b le Hn). rewrite Hp. gcc; lia.
  - assert (Hcase : exists next, (lph l = GSweep /\ next = 0 \/ lph l = GUnlock /\ next = lnext l) /\
              b = next /\ b < length (lb l) /\ l' = mkL (lt l) (lb l) GUnlock (S next)).
    { destruct (lph l) eqn:Hp; try discriminate.
      - destruct (Nat.eqb b 0 && Nat.ltb b (length (lb l))) eqn:G; [|discriminate].
        apply andb_true_iff in G. destruct G as [G1 G2]. apply Nat.eqb_eq in G1. apply Nat.ltb_lt in G2.
        inversion Hs; subst. exists 0. auto.
      - destruct (Nat.eqb b (lnext l) && Nat.ltb b (length (lb l))) eqn:G; [|discriminate].
        apply andb_true_iff in G. destruct G as [G1 G2]. apply Nat.eqb_eq in G1. apply Nat.ltb_lt in G2.
        inversion Hs; subst. exists (lnext l). auto. }
    destruct Hcase as [next [Hph [Eb [Hlt ->]]]]. constructor; simpl; try apply H.
    intros b' le Hn C. apply (li_gc l H b' le Hn).
    destruct Hph as [[-> ->]|[-> ->]]; gcc; auto; lia.
  - assert (Hl' : l' = mkL (lt l) (lb l) GIdle 0).
    { destruct (lph l); try discriminate.
      - destruct (Nat.eqb (length (lb l)) 0); inversion Hs; reflexivity.
      - destruct (Nat.eqb (lnext l) (length (lb l))); inversion Hs; reflexivity. }
    subst l'. constructor; simpl; try apply H. intros b le Hn C. gcc. discriminate.
  - destruct (gc_claimed_b (lph l) (lnext l) (length (lb l)) b) eqn:C0; [discriminate|].
    destruct (nth_error (lb l) b) as [le0|] eqn:Hn0; [|discriminate].
    destruct (ledges_ok_b (lt l) a v) eqn:Hok; [|discriminate]. inversion Hs; subst.
    apply linv_full; assumption.
  - destruct (gc_claimed_b (lph l) (lnext l) (length (lb l)) b) eqn:C0; [discriminate|].
    destruct (nth_error (lb l) b) as [le0|] eqn:Hn0; [|discriminate].
    destruct (ledges_ok_b (lt l) a v) eqn:Hok; [|discriminate].
    destruct le0 as [| |a0 v0]; [|discriminate|].
    + inversion Hs; subst. apply linv_full; assumption.
    + destruct (edges_eqb a a0 && edges_eqb v v0); inversion Hs; subst. exact H.
Qed.

Theorem lrun_inv : forall log l l', LInv l -> lrun l log = Some l' -> LInv l'.
Proof.
  induction log as [|a r IH]; intros l l' H Hr; simpl in Hr.
  - inversion Hr; subst. exact H.
  - destruct (lstep l a) as [l1|] eqn:Hs; [|discriminate].
    apply (IH l1 l' (lstep_inv l a l1 H Hs) Hr).
Qed.

(** the state the replay of a block starts from: the table of the snapshot, nothing known
    about the cache contents, no collection in progress *)
Theorem LInv_start : forall t nb, TInv t -> LInv (mkL t (repeat LUnknown nb) GIdle 0).
Proof.
  intros t nb Ht. constructor; simpl.
  - exact Ht.
  - intros b a v Hn. apply nth_error_repeat_inv in Hn. discriminate.
  - intros b le Hn C. gcc. discriminate.
Qed.

(** a hit accepted by the replay names stored nodes only *)
Theorem lhit_no_dangling : forall l b a v l' e, lstep l (LHit b a v) = Some l' -> In e (a ++ v) ->
  edge_ok_b (lt l) e = true.
Proof.
  intros l b a v l' e Hs He. unfold ConcCache.lstep in Hs.
  destruct (gc_claimed_b (lph l) (lnext l) (length (lb l)) b); [discriminate|].
  destruct (nth_error (lb l) b); [|discriminate].
  destruct (ledges_ok_b (lt l) a v) eqn:Hok; [|discriminate].
  unfold ConcCache.ledges_ok_b in Hok. rewrite forallb_forall in Hok. apply Hok. exact He.
Qed.

(** ** 3. the compressed log *)

Lemma clear_range_nil : forall f c, clear_range [] f c = [].
Proof. intros. reflexivity. Qed.

Lemma clear_range_1 : forall l f, clear_range l f 1 = upd_nth l f LEmpty.
Proof.
  induction l as [|x r IH]; intros [|f]; simpl; auto.
  - destruct r; reflexivity.
  - rewrite IH. reflexivity.
Qed.

Lemma clear_range_S : forall l f c, clear_range (upd_nth l f LEmpty) (S f) c = clear_range l f (S c).
Proof.
  induction l as [|x r IH]; intros [|f] c; simpl; auto.
  rewrite IH. reflexivity.
Qed.

Lemma lrun_cons : forall l a r,
  lrun l (a :: r) = match lstep l a with Some l' => lrun l' r | None => None end.
Proof. reflexivity. Qed.

Lemma lstep_lock : forall l f,
  lstep l (LLock f) =
  match lph l with
  | GLock => if Nat.eqb f (lnext l) && Nat.ltb f (length (lb l))
             then Some (mkL (lt l) (upd_nth (lb l) f LEmpty) GLock (S (lnext l))) else None
  | _ => None
  end.
Proof. reflexivity. Qed.

Lemma lstep_unlock : forall l f,
  lstep l (LUnlock f) =
  match lph l with
  | GSweep => if Nat.eqb f 0 && Nat.ltb f (length (lb l))
              then Some (mkL (lt l) (lb l) GUnlock 1) else None
  | GUnlock => if Nat.eqb f (lnext l) && Nat.ltb f (length (lb l))
               then Some (mkL (lt l) (lb l) GUnlock (S (lnext l))) else None
  | _ => None
  end.
Proof. intros l f. unfold ConcCache.lstep. destruct (lph l); reflexivity. Qed.

Theorem lock_run_eq : forall c l f, lrun l (map LLock (seq f (S c))) = llock_run l f (S c).
Proof.
  induction c as [|c IH]; intros l f.
  - change (map LLock (seq f 1)) with [LLock f]. rewrite lrun_cons, lstep_lock.
    unfold llock_run. destruct (lph l); try reflexivity.
    rewrite Nat.add_1_r. change (Nat.leb (S f) (length (lb l))) with (Nat.ltb f (length (lb l))).
    destruct (Nat.eqb_spec f (lnext l)) as [->|]; [|reflexivity].
    destruct (Nat.ltb (lnext l) (length (lb l))); [|reflexivity]. cbn [andb lrun].
    rewrite clear_range_1. reflexivity.
  - change (map LLock (seq f (S (S c)))) with (LLock f :: map LLock (seq (S f) (S c))).
    rewrite lrun_cons, lstep_lock. unfold llock_run at 1. destruct (lph l) eqn:Hp; try reflexivity.
    destruct (Nat.eqb_spec f (lnext l)) as [E|Hne]; cbn [andb]; [|reflexivity].
    destruct (Nat.ltb_spec f (length (lb l))) as [Hlt|Hge].
    + rewrite IH. unfold llock_run. cbn [lph lnext lb lt].
      rewrite length_upd_nth. rewrite <- E. rewrite Nat.eqb_refl. cbn [andb].
      replace (S f + S c) with (f + S (S c)) by lia.
      destruct (Nat.leb (f + S (S c)) (length (lb l))); [|reflexivity].
      rewrite clear_range_S. reflexivity.
    + destruct (Nat.leb_spec (f + S (S c)) (length (lb l))) as [Hle|_]; [lia | reflexivity].
Qed.

Theorem unlock_run_eq : forall c l f, lrun l (map LUnlock (seq f (S c))) = lunlock_run l f (S c).
Proof.
  induction c as [|c IH]; intros l f.
  - change (map LUnlock (seq f 1)) with [LUnlock f]. rewrite lrun_cons, lstep_unlock.
    unfold lunlock_run. rewrite Nat.add_1_r.
    change (Nat.leb (S f) (length (lb l))) with (Nat.ltb f (length (lb l))).
    destruct (lph l); try reflexivity.
    + destruct (Nat.eqb_spec f 0) as [->|]; [|reflexivity].
      destruct (Nat.ltb 0 (length (lb l))); reflexivity.
    + destruct (Nat.eqb_spec f (lnext l)) as [->|]; [|reflexivity].
      destruct (Nat.ltb (lnext l) (length (lb l))); reflexivity.
  - change (map LUnlock (seq f (S (S c)))) with (LUnlock f :: map LUnlock (seq (S f) (S c))).
    rewrite lrun_cons, lstep_unlock. unfold lunlock_run at 1.
    assert (Hgen : forall next,
      match (if Nat.eqb f next && Nat.ltb f (length (lb l))
             then Some (mkL (lt l) (lb l) GUnlock (S next)) else None) with
      | Some l' => lrun l' (map LUnlock (seq (S f) (S c)))
      | None => None
      end =
      (if Nat.eqb f next && Nat.leb (f + S (S c)) (length (lb l))
       then Some (mkL (lt l) (lb l) GUnlock (f + S (S c))) else None)).
    { intros next. destruct (Nat.eqb_spec f next) as [E|Hne]; cbn [andb]; [|reflexivity].
      destruct (Nat.ltb_spec f (length (lb l))) as [Hlt|Hge].
      - rewrite IH. unfold lunlock_run. cbn [lph lnext lb lt].
        rewrite <- E. rewrite Nat.eqb_refl. cbn [andb].
        replace (S f + S c) with (f + S (S c)) by lia. reflexivity.
      - destruct (Nat.leb_spec (f + S (S c)) (length (lb l))) as [Hle|_]; [lia | reflexivity]. }
    destruct (lph l) eqn:Hp; try reflexivity.
    + apply (Hgen 0).
    + apply (Hgen (lnext l)).
Qed.

(** a run is well-formed if it is not empty *)
Definition cwf (a : clact) : Prop :=
  match a with CL _ => True | CLockRun _ c | CUnlockRun _ c => c <> 0 end.

(** the compressed replay is the plain replay of the expanded log *)
Theorem clstep_expand : forall l a, cwf a -> lrun l (cexpand a) = clstep k terms nl l a.
Proof.
  intros l [a0|f c|f c] Hw; simpl in *.
  - destruct (lstep l a0); reflexivity.
  - destruct c as [|c]; [congruence|]. apply lock_run_eq.
  - destruct c as [|c]; [congruence|]. apply unlock_run_eq.
Qed.

Lemma lrun_app : forall a b l, lrun l (a ++ b) = match lrun l a with Some l' => lrun l' b | None => None end.
Proof.
  induction a as [|x r IH]; intros b l; simpl; [reflexivity|].
  destruct (lstep l x); [apply IH | reflexivity].
Qed.

Theorem clrun_expand : forall log l, (forall a, In a log -> cwf a) ->
  clrun k terms nl l log = lrun l (flat_map cexpand log).
Proof.
  induction log as [|a r IH]; intros l Hw; simpl; [reflexivity|].
  rewrite lrun_app, (clstep_expand l a (Hw a (or_introl eq_refl))).
  destruct (clstep k terms nl l a); [apply IH; intros; apply Hw; right; assumption | reflexivity].
Qed.

(** an empty run is never accepted *)
Lemma clstep_wf : forall l a l', clstep k terms nl l a = Some l' -> cwf a.
Proof.
  intros l [a0|f c|f c] l' H; simpl in *; auto; destruct c; try discriminate; congruence.
Qed.

(** hence: whatever the compressed replay accepts keeps the log-level invariant *)
Theorem clstep_inv : forall l a l', LInv l -> clstep k terms nl l a = Some l' -> LInv l'.
Proof.
  intros l a l' H Hs. pose proof (clstep_wf l a l' Hs) as Hw.
  rewrite <- (clstep_expand l a Hw) in Hs. apply (lrun_inv _ l l' H Hs).
Qed.

Theorem clrun_inv : forall log l l', LInv l -> clrun k terms nl l log = Some l' -> LInv l'.
Proof.
  induction log as [|a r IH]; intros l l' H Hr; simpl in Hr.
  - inversion Hr; subst. exact H.
  - destruct (clstep k terms nl l a) as [l1|] eqn:Hs; [|discriminate].
    apply (IH l1 l' (clstep_inv l a l1 H Hs) Hr).
Qed.

End Log.
