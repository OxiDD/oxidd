(** * C07 — the apply cache protocol: no dangling weak edge, under every schedule

    [KInv] = the invariant [CInv] of Mgr/ConcProofs.v for the table / counts / tokens
           + every edge of every cache entry points to a stored node or existing terminal
             (NO DANGLING WEAK EDGE -- in every bucket, locked or not)
           + a bucket the collector holds is empty, has its bit set and no worker is in it
           + at most one worker per bucket, and a worker's bucket has its bit set
           + the lock bit is exact (set => held by the collector or by a worker).
    [kstep_inv]: every enabled action of every thread and of the collector preserves it
    under the code's protocol ([good]); [krun_inv]: hence every schedule. *)

From Coq Require Import List NArith PArith Bool Arith Lia.
From OxiVerif Require Import Base.ListFacts DD.Table DD.TableProofs Mgr.Conc Mgr.ConcBase Mgr.ConcProofs Mgr.ConcCache.
Import ListNotations.

Arguments N.add : simpl never.
Arguments N.sub : simpl never.
Arguments N.mul : simpl never.

(** ** lists *)

Lemma length_upd_nth : forall (A : Type) (l : list A) i x, length (upd_nth l i x) = length l.
Proof. induction l as [|y r IH]; intros [|i] x; simpl; auto. Qed.

Lemma nth_error_upd_nth_eq : forall (A : Type) (l : list A) i x y,
  nth_error l i = Some y -> nth_error (upd_nth l i x) i = Some x.
Proof.
  induction l as [|z r IH]; intros [|i] x y H; simpl in *; try discriminate; auto.
  eapply IH; eauto.
Qed.

Lemma nth_error_upd_nth_ne : forall (A : Type) (l : list A) i j x,
  i <> j -> nth_error (upd_nth l i x) j = nth_error l j.
Proof.
  induction l as [|z r IH]; intros [|i] [|j] x H; simpl; auto; try congruence.
Qed.

Lemma nth_error_upd_nth : forall (A : Type) (l : list A) i j x y,
  nth_error (upd_nth l i x) j = Some y ->
  (i = j /\ y = x) \/ (i <> j /\ nth_error l j = Some y).
Proof.
  intros A l i j x y H. destruct (Nat.eq_dec i j) as [->|Hne].
  - left. split; [reflexivity|].
    destruct (nth_error l j) as [z|] eqn:E.
    + rewrite (nth_error_upd_nth_eq A l j x z E) in H. congruence.
    + exfalso. apply nth_error_None in E.
      assert (nth_error (upd_nth l j x) j <> None) by congruence.
      apply nth_error_Some in H0. rewrite length_upd_nth in H0. lia.
  - right. split; [exact Hne|]. rewrite nth_error_upd_nth_ne in H; auto.
Qed.

(** ** worker claims *)

Lemma claim_eqb_eq : forall a b, claim_eqb a b = true <-> a = b.
Proof.
  intros [a1 a2] [b1 b2]. unfold claim_eqb. simpl.
  rewrite andb_true_iff, !Nat.eqb_eq. split; [intros [-> ->]; reflexivity | intros E; inversion E; auto].
Qed.

Lemma has_claim_In : forall wk x, has_claim wk x = true <-> In x wk.
Proof.
  intros wk x. unfold has_claim. rewrite existsb_exists. split.
  - intros [y [Hy E]]. apply claim_eqb_eq in E. subst. exact Hy.
  - intros H. exists x. split; [exact H | apply claim_eqb_eq; reflexivity].
Qed.

Lemma drop_claim_incl : forall x wk y, In y (drop_claim x wk) -> In y wk.
Proof.
  induction wk as [|z r IH]; intros y H; simpl in *; [exact H|].
  destruct (claim_eqb x z); [right; exact H|].
  destruct H as [<-|H]; [left; reflexivity | right; apply IH; exact H].
Qed.

Lemma drop_claim_snd_incl : forall x wk b, In b (map snd (drop_claim x wk)) -> In b (map snd wk).
Proof.
  intros x wk b H. apply in_map_iff in H. destruct H as [y [E Hy]]. apply in_map_iff.
  exists y. split; [exact E | eapply drop_claim_incl; eauto].
Qed.

Lemma drop_claim_nodup : forall x wk, NoDup (map snd wk) -> NoDup (map snd (drop_claim x wk)).
Proof.
  induction wk as [|z r IH]; intros H; simpl in *; [exact H|].
  inversion H as [|? ? Hz Hr]; subst.
  destruct (claim_eqb x z); [exact Hr|]. simpl. constructor; [|apply IH; exact Hr].
  intros Hin. apply Hz. eapply drop_claim_snd_incl; eauto.
Qed.

Lemma drop_claim_gone : forall x wk, NoDup (map snd wk) -> In x wk ->
  ~ In (snd x) (map snd (drop_claim x wk)).
Proof.
  induction wk as [|z r IH]; intros Hnd Hin; simpl in *; [contradiction|].
  inversion Hnd as [|? ? Hz Hr]; subst.
  destruct (claim_eqb x z) eqn:E.
  - apply claim_eqb_eq in E. subst z. exact Hz.
  - destruct Hin as [->|Hin]; [rewrite (proj2 (claim_eqb_eq x x) eq_refl) in E; discriminate|].
    simpl. intros [E2|H2].
    + apply Hz. rewrite E2. apply in_map. exact Hin.
    + apply (IH Hr Hin H2).
Qed.

Lemma drop_claim_other : forall x wk b, In b (map snd wk) -> b <> snd x -> In b (map snd (drop_claim x wk)).
Proof.
  induction wk as [|z r IH]; intros b H Hne; simpl in *; [exact H|].
  destruct (claim_eqb x z) eqn:E.
  - apply claim_eqb_eq in E. subst z. destruct H as [H|H]; [congruence | exact H].
  - simpl. destruct H as [H|H]; [left; exact H | right; apply IH; auto].
Qed.

(** ** the collector's claim *)

Lemma gc_claimed_lt : forall ph next nb b, gc_claimed_b ph next nb b = true -> b < nb.
Proof.
  intros ph next nb b H. unfold gc_claimed_b in H. apply andb_true_iff in H.
  destruct H as [H _]. apply Nat.ltb_lt. exact H.
Qed.

Ltac gcc :=
  unfold gc_claimed_b in *;
  repeat match goal with
         | H : _ && _ = true |- _ => apply andb_true_iff in H; destruct H
         | H : Nat.ltb _ _ = true |- _ => apply Nat.ltb_lt in H
         | H : Nat.leb _ _ = true |- _ => apply Nat.leb_le in H
         | H : Nat.eqb _ _ = true |- _ => apply Nat.eqb_eq in H
         | |- _ && _ = true => apply andb_true_iff; split
         | |- Nat.ltb _ _ = true => apply Nat.ltb_lt
         | |- Nat.leb _ _ = true => apply Nat.leb_le
         end.

(** ** an action of the threads never removes or alters a stored node (whatever its count) *)

Section Proofs.
Variable k : kind.
Variable terms : list (N * N).
Variable nl : nat.

Notation step := (step k terms nl).
Notation edge_ok_b := (edge_ok_b k terms).
Notation CInv := (CInv k terms nl).
Notation kstep := (kstep k terms nl).
Notation krun := (krun k terms nl).

Theorem step_keeps_shape : forall s a s' r id nd, step s a = Some (s', r) -> is_gc_act a = false ->
  cfind (cn s) id = Some nd ->
  exists nd', cfind (cn s') id = Some nd' /\ cl nd' = cl nd /\ cch nd' = cch nd.
Proof.
  intros s a s' r id nd Hs Hg F. apply (step_shape k terms nl s a s' r id nd Hs); [|exact F].
  intros ->. discriminate.
Qed.

Lemma step_keeps_edge_ok : forall s a s' r e, step s a = Some (s', r) -> is_gc_act a = false ->
  edge_ok_b (cn s) e = true -> edge_ok_b (cn s') e = true.
Proof.
  intros s a s' r e Hs Hg H. apply (edge_ok_b_ext k terms (cn s)); [|exact H].
  intros id nd _ F. destruct (step_keeps_shape s a s' r id nd Hs Hg F) as [nd' [F' _]]. eauto.
Qed.

(** one clause per branch of [kstep] *)
Inductive kstep_eff (p : proto) (s : kst) : kact -> kst -> kres -> Prop :=
| KE_base a0 c' r0 (Hg : is_gc_act a0 = true -> kph s = GSweep) (S0 : step (kc s) a0 = Some (c', r0)) :
    kstep_eff p s (KBase a0) (mkK c' (kb s) (kph s) (knext s) (kpeek s) (kwk s)) (KRBase r0)
| KE_busy tid b : kstep_eff p s (CTryLock tid b) s KRBusy
| KE_lock tid b bk (Hn : nth_error (kb s) b = Some bk) (Hb : b_bit bk = false) :
    kstep_eff p s (CTryLock tid b)
      (mkK (kc s) (upd_nth (kb s) b (set_bit bk true)) (kph s) (knext s) (kpeek s) ((tid, b) :: kwk s))
      KRUnit
| KE_add tid b c bk (Hc : In (tid, b) (kwk s)) (Hn : nth_error (kb s) b = Some bk)
    (Ha : forall e, In e (ce_edges c) -> addable_b k terms nl (kc s) e = true) :
    kstep_eff p s (CAdd tid b c)
      (mkK (kc s) (upd_nth (kb s) b (mkB (Some c) (b_bit bk))) (kph s) (knext s) (kpeek s) (kwk s))
      KRUnit
| KE_miss tid b op args nums : kstep_eff p s (CGet tid b op args nums) s KRMiss
| KE_hit tid b op args nums bk c (Hc : In (tid, b) (kwk s)) (Hn : nth_error (kb s) b = Some bk)
    (He : b_ent bk = Some c) (Hk : key_match op args nums c = true) :
    kstep_eff p s (CGet tid b op args nums)
      (mkK (retain_all tid (ce_vals c) (kc s)) (kb s) (kph s) (knext s) (kpeek s) (kwk s))
      (KRHit (ce_vals c) (ce_vnums c))
| KE_unlock tid b bk (Hc : In (tid, b) (kwk s)) (Hn : nth_error (kb s) b = Some bk) :
    kstep_eff p s (CUnlock tid b)
      (mkK (kc s) (upd_nth (kb s) b (set_bit bk false)) (kph s) (knext s) (kpeek s)
           (drop_claim (tid, b) (kwk s)))
      KRUnit
| KE_gc_begin (Hp : kph s = GIdle) :
    kstep_eff p s GcBegin (mkK (kc s) (kb s) GLock 0 false (kwk s)) KRUnit
| KE_peek bk (Hp : kph s = GLock) (Hn : nth_error (kb s) (knext s) = Some bk) (Hb : b_bit bk = false) :
    kstep_eff p s (GcPeek (knext s)) (mkK (kc s) (kb s) GLock (knext s) true (kwk s)) KRUnit
| KE_gc_lock bk (Hp : kph s = GLock) (Hn : nth_error (kb s) (knext s) = Some bk)
    (Hl : (if p_blind_lock p then kpeek s else negb (b_bit bk)) = true) :
    kstep_eff p s (GcLockBucket (knext s))
      (mkK (kc s)
           (upd_nth (kb s) (knext s)
              match b_ent bk with
              | None => if p_skip_empty p then set_bit bk false else mkB None true
              | Some _ => mkB None true
              end)
           GLock (S (knext s)) false (kwk s))
      KRUnit
| KE_sweep_begin (Hp : kph s = GLock) (En : knext s = length (kb s)) :
    kstep_eff p s GcSweepBegin (mkK (kc s) (kb s) GSweep 0 false (kwk s)) KRUnit
| KE_sweep_done (Hp : kph s = GSweep) :
    kstep_eff p s GcSweepDone (mkK (kc s) (kb s) GUnlock 0 false (kwk s)) KRUnit
| KE_gc_unlock bk (Hp : kph s = GUnlock) (Hn : nth_error (kb s) (knext s) = Some bk) :
    kstep_eff p s (GcUnlockBucket (knext s))
      (mkK (kc s) (upd_nth (kb s) (knext s) (set_bit bk false)) GUnlock (S (knext s)) false (kwk s))
      KRUnit
| KE_gc_end (Hp : kph s = GUnlock) (En : knext s = length (kb s)) :
    kstep_eff p s GcEnd (mkK (kc s) (kb s) GIdle 0 false (kwk s)) KRUnit.

Lemma kstep_cases : forall p s a s' r, kstep p s a = Some (s', r) -> kstep_eff p s a s' r.
Proof.
  intros p s a s' r Hs.
  destruct a as [a0|tid b|tid b c|tid b op args nums|tid b| |b|b| | |b| ]; simpl in Hs.
  - destruct (is_gc_act a0 && negb (gphase_eqb (kph s) GSweep)) eqn:G; [discriminate|].
    destruct (step (kc s) a0) as [[c' r0]|] eqn:S0; inversion Hs; subst. apply KE_base; [|exact S0].
    intros Ga. rewrite Ga in G. destruct (kph s); simpl in G; congruence.
  - destruct (existsb _ (kwk s)); [discriminate|].
    destruct (nth_error (kb s) b) as [bk|] eqn:Hn; [|discriminate].
    destruct (b_bit bk) eqn:Hb; inversion Hs; subst; [apply KE_busy | apply KE_lock; assumption].
  - destruct (has_claim (kwk s) (tid, b)) eqn:Hc; [|discriminate]. apply has_claim_In in Hc.
    destruct (nth_error (kb s) b) as [bk|] eqn:Hn; [|discriminate].
    destruct (forallb (addable_b k terms nl (kc s)) (ce_edges c)) eqn:Ha; inversion Hs; subst.
    apply KE_add; [exact Hc | exact Hn | apply forallb_forall; exact Ha].
  - destruct (has_claim (kwk s) (tid, b)) eqn:Hc; [|discriminate]. apply has_claim_In in Hc.
    destruct (nth_error (kb s) b) as [bk|] eqn:Hn; [|discriminate].
    destruct (b_ent bk) as [c|] eqn:He; [|inversion Hs; subst; apply KE_miss].
    destruct (key_match op args nums c) eqn:Hk; inversion Hs; subst; [|apply KE_miss].
    apply (KE_hit _ _ _ _ _ _ _ bk c Hc Hn He Hk).
  - destruct (has_claim (kwk s) (tid, b)) eqn:Hc; [|discriminate]. apply has_claim_In in Hc.
    destruct (nth_error (kb s) b) as [bk|] eqn:Hn; inversion Hs; subst. apply KE_unlock; assumption.
  - destruct (kph s) eqn:Hp; inversion Hs; subst. apply KE_gc_begin. exact Hp.
  - destruct (kph s) eqn:Hp; try discriminate.
    destruct (Nat.eqb_spec b (knext s)) as [->|]; [|discriminate].
    destruct (nth_error (kb s) (knext s)) as [bk|] eqn:Hn; [|discriminate].
    destruct (b_bit bk) eqn:Hb; inversion Hs; subst. apply (KE_peek _ _ bk Hp Hn Hb).
  - destruct (kph s) eqn:Hp; try discriminate.
    destruct (Nat.eqb_spec b (knext s)) as [->|]; [|discriminate].
    destruct (nth_error (kb s) (knext s)) as [bk|] eqn:Hn; [|discriminate].
    destruct (if p_blind_lock p then kpeek s else negb (b_bit bk)) eqn:Hl; inversion Hs; subst.
    apply (KE_gc_lock _ _ bk Hp Hn Hl).
  - destruct (kph s) eqn:Hp; try discriminate.
    destruct (Nat.eqb_spec (knext s) (length (kb s))) as [En|]; inversion Hs; subst.
    apply KE_sweep_begin; assumption.
  - destruct (kph s) eqn:Hp; inversion Hs; subst. apply KE_sweep_done. exact Hp.
  - destruct (kph s) eqn:Hp; try discriminate.
    destruct (Nat.eqb_spec b (knext s)) as [->|]; [|discriminate].
    destruct (nth_error (kb s) (knext s)) as [bk|] eqn:Hn; inversion Hs; subst.
    apply (KE_gc_unlock _ _ bk Hp Hn).
  - destruct (kph s) eqn:Hp; try discriminate.
    destruct (Nat.eqb_spec (knext s) (length (kb s))) as [En|]; inversion Hs; subst.
    apply KE_gc_end; assumption.
Qed.

(** ** `clone_edge` of the value edges of a hit *)

Lemma retain_all_shape : forall tid vals s, cn_shape (cn (retain_all tid vals s)) = cn_shape (cn s).
Proof.
  induction vals as [|e r IH]; intros s; simpl; [reflexivity|].
  destruct (eref e) as [x|id]; [apply IH|]. rewrite IH. simpl. apply cn_shape_rc_upd.
Qed.

Lemma retain_all_inv : forall tid vals s, CInv s ->
  (forall e, In e vals -> edge_ok_b (cn s) e = true) -> CInv (retain_all tid vals s).
Proof.
  induction vals as [|e r IH]; intros s H Hok; simpl; [exact H|].
  destruct (eref e) as [x|id] eqn:Er.
  - apply IH; [exact H | intros e' He'; apply Hok; right; exact He'].
  - apply IH.
    + apply (inv_retain k terms nl s tid e id H Er). apply Hok. left. reflexivity.
    + intros e' He'. simpl. rewrite (edge_ok_b_congr k terms _ (cn s)); [|apply cn_shape_rc_upd].
      apply Hok. right. exact He'.
Qed.

Lemma retain_all_tokens : forall tid vals s e id, In e vals -> eref e = RN id ->
  In (tid, e) (cown (retain_all tid vals s)).
Proof.
  assert (Hmono : forall tid vals s o, In o (cown s) -> In o (cown (retain_all tid vals s))).
  { induction vals as [|e r IH]; intros s o Ho; simpl; [exact Ho|].
    destruct (eref e); apply IH; [exact Ho | simpl; right; exact Ho]. }
  induction vals as [|e0 r IH]; intros s e id He Er; simpl; [contradiction|].
  destruct He as [->|He].
  - rewrite Er. apply Hmono. simpl. left. reflexivity.
  - destruct (eref e0); eapply IH; eauto.
Qed.

(** ** the invariant *)

Definition claimed (s : kst) (b : nat) : Prop :=
  gc_claimed_b (kph s) (knext s) (length (kb s)) b = true.

Record KInv (s : kst) : Prop := mkKInv {
  (* table, tokens, exact counts *)
  ki_c : CInv (kc s);
  (* NO DANGLING WEAK EDGE: operand and value edges of every entry of every bucket *)
  ki_ent : forall b bk c e, nth_error (kb s) b = Some bk -> b_ent bk = Some c -> In e (ce_edges c) ->
      edge_ok_b (cn (kc s)) e = true;
  (* a bucket the collector holds is empty and locked, no worker is inside *)
  ki_gc : forall b bk, nth_error (kb s) b = Some bk -> claimed s b ->
      b_ent bk = None /\ b_bit bk = true /\ ~ In b (map snd (kwk s));
  (* at most one worker per bucket *)
  ki_wk1 : NoDup (map snd (kwk s));
  (* a worker's bucket exists and is locked *)
  ki_wk : forall tid b, In (tid, b) (kwk s) -> exists bk, nth_error (kb s) b = Some bk /\ b_bit bk = true;
  (* the lock bit is exact *)
  ki_bit : forall b bk, nth_error (kb s) b = Some bk -> b_bit bk = true ->
      claimed s b \/ In b (map snd (kwk s));
  ki_next : knext s <= length (kb s)
}.

Theorem KInv_init : forall nb, KInv (kinit nb).
Proof.
  intros nb. constructor; simpl.
  - apply CInv_empty.
  - intros b bk c e H E. apply nth_error_repeat_inv in H. subst. discriminate.
  - intros b bk H C. unfold claimed in C. simpl in C. gcc. discriminate.
  - constructor.
  - intros tid b [].
  - intros b bk H E. apply nth_error_repeat_inv in H. subst. discriminate.
  - lia.
Qed.

(** a worker inside a bucket excludes the collector *)
Lemma worker_not_claimed : forall s tid b, KInv s -> In (tid, b) (kwk s) -> ~ claimed s b.
Proof.
  intros s tid b H Hin C. destruct (ki_wk s H tid b Hin) as [bk [Hn _]].
  destruct (ki_gc s H b bk Hn C) as [_ [_ Hno]]. apply Hno.
  apply in_map_iff. exists (tid, b). auto.
Qed.

Lemma kinv_change_c : forall s c' pk, KInv s -> CInv c' ->
  (forall b bk c e, nth_error (kb s) b = Some bk -> b_ent bk = Some c -> In e (ce_edges c) ->
     edge_ok_b (cn c') e = true) ->
  KInv (mkK c' (kb s) (kph s) (knext s) pk (kwk s)).
Proof. intros s c' pk H Hc Hok. constructor; simpl; try apply H; assumption. Qed.

(** during the sweep every bucket is empty *)
Lemma sweep_all_empty : forall s b bk, KInv s -> kph s = GSweep -> nth_error (kb s) b = Some bk ->
  b_ent bk = None /\ b_bit bk = true.
Proof.
  intros s b bk H Hp Hn.
  assert (C : claimed s b).
  { unfold claimed. rewrite Hp. unfold gc_claimed_b. apply andb_true_iff. split; [|reflexivity].
    apply Nat.ltb_lt. apply nth_error_Some. congruence. }
  destruct (ki_gc s H b bk Hn C) as [E [B _]]. auto.
Qed.

Lemma sweep_no_worker : forall s, KInv s -> kph s = GSweep -> kwk s = [].
Proof.
  intros s H Hp. destruct (kwk s) as [|[tid b] r] eqn:E; [reflexivity|]. exfalso.
  assert (Hin : In (tid, b) (kwk s)) by (rewrite E; left; reflexivity).
  apply (worker_not_claimed s tid b H Hin).
  destruct (ki_wk s H tid b Hin) as [bk [Hn _]].
  unfold claimed. rewrite Hp. unfold gc_claimed_b. apply andb_true_iff. split; [|reflexivity].
  apply Nat.ltb_lt. apply nth_error_Some. congruence.
Qed.

Lemma addable_ok : forall c e, CInv c -> addable_b k terms nl c e = true -> edge_ok_b (cn c) e = true.
Proof.
  intros c e H Ha. unfold addable_b in Ha. destruct (eref e); [exact Ha|].
  apply andb_true_iff in Ha. destruct Ha as [_ Ha]. exact Ha.
Qed.

Lemma kinv_phase : forall s ph nx pk, KInv s ->
  (forall b, gc_claimed_b ph nx (length (kb s)) b = gc_claimed_b (kph s) (knext s) (length (kb s)) b) ->
  nx <= length (kb s) -> KInv (mkK (kc s) (kb s) ph nx pk (kwk s)).
Proof.
  intros s ph nx pk H E Hnx. constructor; unfold claimed; simpl; try apply H.
  - intros b bk Hn C. rewrite E in C. apply (ki_gc s H b bk Hn C).
  - intros b bk Hn B. rewrite E. apply (ki_bit s H b bk Hn B).
  - exact Hnx.
Qed.

Lemma kinv_bucket : forall s b bk bk' ph nx pk wk, KInv s -> nth_error (kb s) b = Some bk ->
  let cl' b' := gc_claimed_b ph nx (length (kb s)) b' = true in
  (forall b', b' <> b -> (cl' b' <-> claimed s b') /\ (In b' (map snd wk) <-> In b' (map snd (kwk s)))) ->
  NoDup (map snd wk) -> nx <= length (kb s) ->
  (forall c e, b_ent bk' = Some c -> In e (ce_edges c) -> edge_ok_b (cn (kc s)) e = true) ->
  (cl' b -> b_ent bk' = None /\ ~ In b (map snd wk)) ->
  (b_bit bk' = true <-> cl' b \/ In b (map snd wk)) ->
  KInv (mkK (kc s) (upd_nth (kb s) b bk') ph nx pk wk).
Proof.
  intros s b bk bk' ph nx pk wk H Hn cl' Hoth Hnd Hnx Hent Hcl Hbit.
  assert (Hcase : forall b' bk1, nth_error (upd_nth (kb s) b bk') b' = Some bk1 ->
            (b' = b /\ bk1 = bk') \/ (b' <> b /\ nth_error (kb s) b' = Some bk1)).
  { intros b' bk1 Hn'. apply nth_error_upd_nth in Hn'. destruct Hn' as [[<- ->]|[Hne Hn']]; auto. }
  constructor; unfold claimed; simpl; rewrite ?length_upd_nth.
  - apply (ki_c s H).
  - intros b' bk1 c e Hn' He Hin. destruct (Hcase b' bk1 Hn') as [[-> ->]|[Hne Hn1]];
      [apply (Hent c e He Hin) | apply (ki_ent s H b' bk1 c e Hn1 He Hin)].
  - intros b' bk1 Hn' C. destruct (Hcase b' bk1 Hn') as [[-> ->]|[Hne Hn1]].
    + destruct (Hcl C) as [E Hno]. split; [exact E|]. split; [apply Hbit; left; exact C | exact Hno].
    + destruct (Hoth b' Hne) as [Hc Hw]. destruct (ki_gc s H b' bk1 Hn1 (proj1 Hc C)) as [E [B Hno]].
      split; [exact E|]. split; [exact B|]. intros Hin. apply Hno, Hw, Hin.
  - exact Hnd.
  - intros t b' Hin. assert (Hin' : In b' (map snd wk)) by (apply (in_map snd _ _ Hin)).
    destruct (Nat.eq_dec b' b) as [->|Hne].
    + exists bk'. split; [apply (nth_error_upd_nth_eq _ _ _ _ bk Hn) | apply Hbit; right; exact Hin'].
    + apply (Hoth b' Hne) in Hin'. apply in_map_iff in Hin'. destruct Hin' as [[t' b''] [E Hin']].
      simpl in E. subst b''. destruct (ki_wk s H t' b' Hin') as [bk1 [Hn1 B]].
      exists bk1. split; [rewrite nth_error_upd_nth_ne; auto | exact B].
  - intros b' bk1 Hn' B. destruct (Hcase b' bk1 Hn') as [[-> ->]|[Hne Hn1]]; [apply Hbit; exact B|].
    destruct (Hoth b' Hne) as [Hc Hw].
    destruct (ki_bit s H b' bk1 Hn1 B) as [C|Hin]; [left; apply Hc; exact C | right; apply Hw; exact Hin].
  - exact Hnx.
Qed.

Lemma clear_bit_free : forall s b bk, KInv s -> nth_error (kb s) b = Some bk -> b_bit bk = false ->
  ~ claimed s b /\ ~ In b (map snd (kwk s)).
Proof.
  intros s b bk H Hn Hb. split.
  - intros C. destruct (ki_gc s H b bk Hn C) as [_ [B _]]. congruence.
  - intros Hin. apply in_map_iff in Hin. destruct Hin as [[t b'] [E Hin]]. simpl in E. subst b'.
    destruct (ki_wk s H t b Hin) as [bk' [Hn' B']]. congruence.
Qed.

(** 1. every enabled action of every thread and of the collector preserves the invariant
    (the code's protocol) *)
Theorem kstep_inv : forall s a s' r, KInv s -> kstep good s a = Some (s', r) -> KInv s'.
Proof.
  intros s a s' r H Hs. destruct (kstep_cases good s a s' r Hs); try exact H.
  - (* action of Mgr/Conc.v *)
    pose proof (step_inv k terms nl _ _ _ _ (ki_c s H) S0) as Hc'.
    apply kinv_change_c; [exact H | exact Hc'|]. intros b bk c e Hn He Hin.
    destruct (is_gc_act a0) eqn:Ga.
    + destruct (sweep_all_empty s b bk H (Hg eq_refl) Hn) as [E _]. congruence.
    + apply (step_keeps_edge_ok _ _ _ _ e S0 Ga), (ki_ent s H b bk c e Hn He Hin).
  - (* try_lock *)
    destruct (clear_bit_free s b bk H Hn Hb) as [Hnc Hnw].
    apply (kinv_bucket s b bk); simpl; auto; try apply H.
    + intros b' Hne. split; [reflexivity|]. split; [intros [E|I]; [congruence | exact I] | auto].
    + constructor; [exact Hnw | apply (ki_wk1 s H)].
    + intros c e. apply (ki_ent s H b bk c e Hn).
    + intros C. elim (Hnc C).
    + split; [auto | reflexivity].
  - (* add *)
    pose proof (worker_not_claimed s tid b H Hc) as Hnc.
    destruct (ki_wk s H tid b Hc) as [bk0 [Hn0 B0]]. rewrite Hn in Hn0. inversion Hn0; subst bk0.
    pose proof (in_map snd _ _ Hc) as Hw.
    apply (kinv_bucket s b bk); simpl; auto; try apply H.
    + intros b' _. split; reflexivity.
    + intros c' e E He. inversion E; subst c'. apply addable_ok; [apply (ki_c s H) | apply Ha; exact He].
    + intros C. elim (Hnc C).
    + split; auto.
  - (* get: a hit *)
    apply kinv_change_c; [exact H | apply retain_all_inv; [apply (ki_c s H)|] |].
    + intros e Hin. apply (ki_ent s H b bk c e Hn He). unfold ce_edges. apply in_or_app. right. exact Hin.
    + intros b' bk' c' e Hn' He' Hin. rewrite (edge_ok_b_congr k terms _ (cn (kc s))) by apply retain_all_shape.
      apply (ki_ent s H b' bk' c' e Hn' He' Hin).
  - (* unlock by a worker *)
    pose proof (worker_not_claimed s tid b H Hc) as Hnc.
    pose proof (drop_claim_gone (tid, b) (kwk s) (ki_wk1 s H) Hc) as Hgone. simpl in Hgone.
    apply (kinv_bucket s b bk); simpl; auto; try apply H.
    + intros b' Hne. split; [reflexivity|].
      split; [apply drop_claim_snd_incl | intros I; apply drop_claim_other; auto].
    + apply drop_claim_nodup, (ki_wk1 s H).
    + intros c e. apply (ki_ent s H b bk c e Hn).
    + intros C. elim (Hnc C).
    + split; [discriminate | intros [C|I]; contradiction].
  - (* gc begins *)
    apply kinv_phase; [exact H | | lia].
    intros b. rewrite Hp. unfold gc_claimed_b. destruct (Nat.ltb b (length (kb s))); reflexivity.
  - (* peek *)
    apply kinv_phase; [exact H | intros b; rewrite Hp; reflexivity | apply H].
  - (* pre_gc: one bucket *)
    simpl in Hl. apply negb_true_iff in Hl.
    destruct (clear_bit_free s _ bk H Hn Hl) as [_ Hnw].
    assert (Hlt : knext s < length (kb s)) by (apply nth_error_Some; congruence).
    replace (match b_ent bk with Some _ => _ | None => _ end) with (mkB None true)
      by (destruct (b_ent bk); reflexivity).
    apply (kinv_bucket s _ bk); simpl; auto; try apply H.
    + intros b' Hne. split; [|reflexivity]. unfold claimed. rewrite Hp. split; intros C; gcc; lia.
    + discriminate.
    + split; [intros _; left; gcc; lia | reflexivity].
  - (* the sweep begins *)
    apply kinv_phase; [exact H | | lia].
    intros b. rewrite Hp, En. unfold gc_claimed_b. destruct (Nat.ltb b (length (kb s))); reflexivity.
  - (* the sweep is done *)
    apply kinv_phase; [exact H | intros b; rewrite Hp; reflexivity | lia].
  - (* post_gc: one bucket *)
    assert (Hlt : knext s < length (kb s)) by (apply nth_error_Some; congruence).
    assert (C0 : claimed s (knext s)) by (unfold claimed; rewrite Hp; gcc; lia).
    destruct (ki_gc s H _ bk Hn C0) as [E0 [B0 Hnw]].
    apply (kinv_bucket s _ bk); simpl; auto; try apply H.
    + intros b' Hne. split; [|reflexivity]. unfold claimed. rewrite Hp. split; intros C; gcc; lia.
    + intros c e E. congruence.
    + split; [discriminate | intros [C|I]; [gcc; lia | contradiction]].
  - (* gc ends *)
    apply kinv_phase; [exact H | | lia].
    intros b. rewrite Hp, En. unfold gc_claimed_b.
    destruct (Nat.ltb_spec b (length (kb s))) as [Hlt|_]; [|reflexivity].
    simpl. symmetry. apply Nat.leb_gt. exact Hlt.
Qed.

(** 2. any interleaving = any list of actions *)
Theorem krun_inv : forall sched s s', KInv s -> krun good s sched = Some s' -> KInv s'.
Proof.
  induction sched as [|a r IH]; intros s s' H Hr; simpl in Hr.
  - inversion Hr; subst. exact H.
  - destruct (kstep good s a) as [[s1 res]|] eqn:Hs; [|discriminate].
    apply (IH s1 s' (kstep_inv s a s1 res H Hs) Hr).
Qed.

Theorem kreachable_inv : forall nb sched s, krun good (kinit nb) sched = Some s -> KInv s.
Proof. intros nb sched s. apply krun_inv. apply KInv_init. Qed.

End Proofs.
