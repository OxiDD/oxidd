(** * C07 — consequences of the cache invariant

    [no_dangling] / [no_dangling_unlocked]: in every state satisfying [KInv] the executable
      checkers find no dangling entry.
    [cache_hit_valid]: a hit returns the value edges of the entry, every one of them points
      to a stored node (or terminal), the thread owns a token for it, the count is positive
      and the invariant still holds.
    [gc_node_cache_empty]: whenever the collector removes a node, every bucket is empty and
      locked and no worker is inside a bucket.
    [kstep_entry_sem] / [krun_entry_sem] / [cache_hit_memo]: an entry stays untouched until
      it is overwritten or cleared, and as long as it is there the denotation of all its
      edges (operands and values) is the one they had when the entry was written: a hit
      yields the memoised function. *)

From Coq Require Import List NArith PArith Bool Arith Lia FMapPositive.
From OxiVerif Require Import DD.Table DD.TableExtra DD.TableProofs
  Mgr.Conc Mgr.ConcBase Mgr.ConcProofs Mgr.ConcSnap Mgr.ConcSem Mgr.ConcCache Mgr.ConcCacheProofs.
Import ListNotations.

(** the entry of bucket [b] *)
Definition kent (s : kst) (b : nat) : option centry :=
  match nth_error (kb s) b with Some bk => b_ent bk | None => None end.

Section Thms.
Variable k : kind.
Variable terms : list (N * N).
Variable nl : nat.

Notation step := (step k terms nl).
Notation edge_ok_b := (edge_ok_b k terms).
Notation CInv := (CInv k terms nl).
Notation KInv := (KInv k terms nl).
Notation kstep := (kstep k terms nl).
Notation krun := (krun k terms nl).
Notation to_snap := (to_snap k terms nl).

(** the invariant, clause by clause *)
Lemma KInv_flat : forall s,
  KInv s <->
  (CInv (kc s) /\
   (forall b bk c e, nth_error (kb s) b = Some bk -> b_ent bk = Some c -> In e (ce_edges c) ->
      edge_ok_b (cn (kc s)) e = true) /\
   (forall b bk, nth_error (kb s) b = Some bk ->
      gc_claimed_b (kph s) (knext s) (length (kb s)) b = true ->
      b_ent bk = None /\ b_bit bk = true /\ ~ In b (map snd (kwk s))) /\
   NoDup (map snd (kwk s)) /\
   (forall tid b, In (tid, b) (kwk s) -> exists bk, nth_error (kb s) b = Some bk /\ b_bit bk = true) /\
   (forall b bk, nth_error (kb s) b = Some bk -> b_bit bk = true ->
      gc_claimed_b (kph s) (knext s) (length (kb s)) b = true \/ In b (map snd (kwk s))) /\
   knext s <= length (kb s)).
Proof.
  intros s. split.
  - intros [H1 H2 H3 H4 H5 H6 H7]. exact (conj H1 (conj H2 (conj H3 (conj H4 (conj H5 (conj H6 H7)))))).
  - intros [H1 [H2 [H3 [H4 [H5 [H6 H7]]]]]]. constructor; assumption.
Qed.

(** ** no dangling weak edge (executable form) *)

Theorem no_dangling : forall s, KInv s -> no_dangling_b k terms s = true.
Proof.
  intros s H. unfold no_dangling_b. apply forallb_forall. intros bk Hin.
  apply In_nth_error in Hin. destruct Hin as [b Hn].
  unfold bucket_ok_b. destruct (b_ent bk) as [c|] eqn:E; [|reflexivity].
  unfold entry_ok_b. apply forallb_forall. intros e He. apply (ki_ent k terms nl s H b bk c e Hn E He).
Qed.

Theorem no_dangling_unlocked : forall s, KInv s -> dangling_unlocked_b k terms s = false.
Proof.
  intros s H. unfold dangling_unlocked_b.
  destruct (existsb _ (kb s)) eqn:E; [|reflexivity].
  apply existsb_exists in E. destruct E as [bk [Hin E]]. apply andb_true_iff in E. destruct E as [_ E].
  pose proof (no_dangling s H) as N. unfold no_dangling_b in N. rewrite forallb_forall in N.
  rewrite (N bk Hin) in E. discriminate.
Qed.

(** ** a hit *)

Theorem cache_hit_valid : forall s tid b op args nums s' vals vnums, KInv s ->
  kstep good s (CGet tid b op args nums) = Some (s', KRHit vals vnums) ->
  exists c, kent s b = Some c /\ key_match op args nums c = true /\
    vals = ce_vals c /\ vnums = ce_vnums c /\
    (forall e, In e vals -> edge_ok_b (cn (kc s')) e = true) /\
    (forall e id, In e vals -> eref e = RN id ->
       In (tid, e) (cown (kc s')) /\ exists nd, cfind (cn (kc s')) id = Some nd /\ crc nd <> 0%N) /\
    KInv s'.
Proof.
  intros s tid b op args nums s' vals vnums H Hs.
  pose proof (kstep_inv k terms nl _ _ _ _ H Hs) as H'.
  simpl in Hs. destruct (has_claim (kwk s) (tid, b)); [|discriminate].
  unfold kent. destruct (nth_error (kb s) b) as [bk|] eqn:Hn; [|discriminate].
  destruct (b_ent bk) as [c|] eqn:He; [|discriminate].
  destruct (key_match op args nums c) eqn:Hk; [|discriminate]. inversion Hs; subst.
  exists c. split; [reflexivity|]. split; [exact Hk|]. split; [reflexivity|]. split; [reflexivity|].
  split; [|split; [|exact H']].
  - intros e Hin. simpl. rewrite (edge_ok_b_congr k terms _ (cn (kc s))); [|apply retain_all_shape].
    apply (ki_ent k terms nl s H b bk c e Hn He). unfold ce_edges. apply in_or_app. right. exact Hin.
  - intros e id Hin Er.
    assert (Ht : In (tid, e) (cown (kc (mkK (retain_all tid (ce_vals c) (kc s)) (kb s) (kph s) (knext s) (kpeek s) (kwk s)))))
      by (simpl; eapply retain_all_tokens; eauto).
    split; [exact Ht|].
    apply (owned_live k terms nl _ (tid, e) id (ki_c k terms nl _ H') Ht Er).
Qed.

(** ** the sweep *)

Theorem gc_node_cache_empty : forall s id s' r, KInv s ->
  kstep good s (KBase (AGcNode id)) = Some (s', r) ->
  kph s = GSweep /\ kwk s = [] /\
  forall b bk, nth_error (kb s) b = Some bk -> b_ent bk = None /\ b_bit bk = true.
Proof.
  intros s id s' r H Hs. simpl in Hs.
  destruct (gphase_eqb (kph s) GSweep) eqn:G; [|discriminate].
  assert (Hp : kph s = GSweep) by (destruct (kph s); simpl in G; congruence).
  split; [exact Hp|]. split; [apply (sweep_no_worker k terms nl s H Hp)|].
  intros b bk Hn. apply (sweep_all_empty k terms nl s b bk H Hp Hn).
Qed.

(** the collector can only remove a node no thread owns, no stored node refers to, and no
    cache entry names *)
Theorem gc_node_safe : forall s id s' r, KInv s ->
  kstep good s (KBase (AGcNode id)) = Some (s', r) ->
  owners (cown (kc s)) id = 0 /\ parents (cn (kc s)) id = 0 /\
  forall b c e, kent s b = Some c -> In e (ce_edges c) -> eref e <> RN id.
Proof.
  intros s id s' r H Hs.
  destruct (gc_node_cache_empty s id s' r H Hs) as [_ [_ Hall]].
  simpl in Hs. destruct (gphase_eqb (kph s) GSweep); [|discriminate]. simpl in Hs.
  destruct (cfind (cn (kc s)) id) as [nd|] eqn:F; [|discriminate].
  destruct (N.eqb_spec (crc nd) 0) as [Hz|_]; [|discriminate].
  pose proof (ci_rc k terms nl _ (ki_c k terms nl s H) id nd F) as Hrc.
  split; [lia|]. split; [lia|].
  intros b c e Hk. unfold kent in Hk. destruct (nth_error (kb s) b) as [bk|] eqn:Hn; [|discriminate].
  destruct (Hall b bk Hn) as [E _]. congruence.
Qed.

(** ** entries and what they denote *)

(** an entry changes only by an insertion into its bucket or by the collector's clear *)
Lemma kstep_ent_cases : forall p s a s' r b, ConcCache.kstep k terms nl p s a = Some (s', r) ->
  kent s' b = kent s b \/
  (exists tid c, a = CAdd tid b c /\ kent s' b = Some c) \/
  (a = GcLockBucket b /\ kent s' b = None).
Proof.
  intros p s a s' r b Hs. unfold kent.
  assert (Hupd : forall i bk0 bk', nth_error (kb s) i = Some bk0 -> b_ent bk' = b_ent bk0 ->
            match nth_error (upd_nth (kb s) i bk') b with Some bk => b_ent bk | None => None end =
            match nth_error (kb s) b with Some bk => b_ent bk | None => None end).
  { intros i bk0 bk' Hn E. destruct (Nat.eq_dec i b) as [->|Hne].
    - rewrite (nth_error_upd_nth_eq _ _ _ bk' bk0 Hn), Hn. exact E.
    - rewrite nth_error_upd_nth_ne by exact Hne. reflexivity. }
  destruct (kstep_cases k terms nl p s a s' r Hs); simpl; auto.
  - left. apply (Hupd b0 bk); auto.
  - destruct (Nat.eq_dec b0 b) as [->|Hne].
    + right. left. exists tid, c. split; [reflexivity|].
      rewrite (nth_error_upd_nth_eq _ _ _ _ bk Hn). reflexivity.
    + left. rewrite nth_error_upd_nth_ne by exact Hne. reflexivity.
  - left. apply (Hupd b0 bk); auto.
  - destruct (Nat.eq_dec (knext s) b) as [E|Hne].
    + right. right. rewrite E in *. split; [reflexivity|].
      rewrite (nth_error_upd_nth_eq _ _ _ _ bk Hn).
      destruct (b_ent bk) eqn:E0; [|destruct (p_skip_empty p)]; simpl; auto.
    + left. rewrite nth_error_upd_nth_ne by exact Hne. reflexivity.
  - left. apply (Hupd _ bk); auto.
Qed.

(** the denotation of every valid edge is unchanged if every stored node keeps its level
    and children *)
Lemma sem_shape_preserved : forall s s', CInv s ->
  (forall id nd, cfind (cn s) id = Some nd ->
     exists nd', cfind (cn s') id = Some nd' /\ cl nd' = cl nd /\ cch nd' = cch nd) ->
  forall e cfg, edge_ok_b (cn s) e = true -> sem_edge (to_snap s') e cfg = sem_edge (to_snap s) e cfg.
Proof.
  intros s s' H Hsh e cfg Hok. symmetry.
  set (P := fun r : ref => forall id, r = RN id -> cfind (cn s) id <> None).
  apply (sem_edge_agree (to_snap s) (to_snap s') P eq_refl eq_refl).
  - rewrite !(nlevels_to_snap k terms nl). reflexivity.
  - intros id Hp. rewrite !(find_node_to_snap k terms nl).
    destruct (cfind (cn s) id) as [nd|] eqn:F; simpl; [|exact I].
    destruct (Hsh id nd F) as [nd' [F' [L C]]]. exists (to_node nd'). rewrite F'. simpl.
    repeat split; auto.
    intros x Hx j Er. destruct (node_pre_b_child k terms nl _ _ _ x j
      (ti_pre _ _ _ _ (ci_tbl k terms nl s H) id nd F) Hx Er) as [ndc [Fc _]]. congruence.
  - intros id Hp. rewrite (find_node_to_snap k terms nl). specialize (Hp id eq_refl).
    destruct (cfind (cn s) id); [discriminate | congruence].
  - intros id Er. destruct (edge_ok_b_inner k terms _ _ id Hok Er) as [nd F]. congruence.
Qed.

(** one action: the entry of a bucket that is still there afterwards (and was not just
    written) is the same entry and all its edges denote what they denoted before *)
Theorem kstep_entry_sem : forall s a s' r b c, KInv s -> kstep good s a = Some (s', r) ->
  kent s b = Some c -> (forall tid c', a <> CAdd tid b c') ->
  kent s' b = None \/
  (kent s' b = Some c /\
   forall e cfg, In e (ce_edges c) ->
     sem_edge (to_snap (kc s')) e cfg = sem_edge (to_snap (kc s)) e cfg).
Proof.
  intros s a s' r b c H Hs Hk Hna.
  destruct (kstep_ent_cases good s a s' r b Hs) as [E|[[tid [c' [Ea _]]]|[_ E]]];
    [|exfalso; apply (Hna tid c' Ea)|left; exact E].
  right. split; [congruence|]. intros e cfg He.
  assert (Hok : edge_ok_b (cn (kc s)) e = true).
  { unfold kent in Hk. destruct (nth_error (kb s) b) as [bk|] eqn:Hn; [|discriminate].
    apply (ki_ent k terms nl s H b bk c e Hn Hk He). }
  apply (sem_shape_preserved (kc s) _ (ki_c k terms nl s H)); [|exact Hok].
  intros id nd F. destruct (kstep_cases k terms nl good s a s' r Hs); simpl; eauto.
  - destruct (is_gc_act a0) eqn:Ga; [|apply (step_keeps_shape k terms nl (kc s) a0 c' r0 id nd S0 Ga F)].
    (* the collector: every bucket is empty *)
    exfalso. unfold kent in Hk. destruct (nth_error (kb s) b) as [bk|] eqn:Hn; [|discriminate].
    destruct (sweep_all_empty k terms nl s b bk H (Hg eq_refl) Hn) as [E0 _]. congruence.
  - apply (shape_eq_find (cn (kc s)) _ id nd); [symmetry; apply retain_all_shape | exact F].
Qed.

(** without an insertion, an empty bucket stays empty *)
Lemma krun_none_stays : forall sched s s' b, krun good s sched = Some s' ->
  (forall a, In a sched -> forall tid c', a <> CAdd tid b c') -> kent s b = None -> kent s' b = None.
Proof.
  induction sched as [|a rest IH]; intros s s' b Hr Hna Hk; simpl in Hr.
  - inversion Hr; subst. exact Hk.
  - destruct (kstep good s a) as [[s1 res]|] eqn:Hs; [|discriminate].
    apply (IH s1 s' b Hr (fun a0 Ha => Hna a0 (or_intror Ha))).
    destruct (kstep_ent_cases good s a s1 res b Hs) as [E|[[tid [c' [Ea _]]]|[_ E]]];
      [congruence | exfalso; apply (Hna a (or_introl eq_refl) tid c' Ea) | exact E].
Qed.

(** any schedule without an insertion into bucket [b]: if the bucket is occupied at the end,
    it still holds the entry of the beginning and the entry's edges denote the same *)
Theorem krun_entry_sem : forall sched s s' b c c', KInv s -> krun good s sched = Some s' ->
  (forall a, In a sched -> forall tid c0, a <> CAdd tid b c0) ->
  kent s b = Some c -> kent s' b = Some c' ->
  c' = c /\ forall e cfg, In e (ce_edges c) ->
     sem_edge (to_snap (kc s')) e cfg = sem_edge (to_snap (kc s)) e cfg.
Proof.
  induction sched as [|a rest IH]; intros s s' b c c' H Hr Hna Hk Hk'; simpl in Hr.
  - inversion Hr; subst. split; [congruence | reflexivity].
  - destruct (kstep good s a) as [[s1 res]|] eqn:Hs; [|discriminate].
    pose proof (kstep_inv k terms nl _ _ _ _ H Hs) as H1.
    destruct (kstep_entry_sem s a s1 res b c H Hs Hk (Hna a (or_introl eq_refl))) as [E|[E Hsem]].
    + pose proof (krun_none_stays rest s1 s' b Hr (fun a0 Ha => Hna a0 (or_intror Ha)) E). congruence.
    + destruct (IH s1 s' b c c' H1 Hr (fun a0 Ha => Hna a0 (or_intror Ha)) E Hk') as [Ec Hsem'].
      split; [exact Ec|]. intros e cfg He. rewrite (Hsem' e cfg He). apply Hsem. exact He.
Qed.

Lemma cadd_ent : forall p s tid b c s1 r, ConcCache.kstep k terms nl p s (CAdd tid b c) = Some (s1, r) ->
  kent s1 b = Some c.
Proof.
  intros p s tid b c s1 r Ha. simpl in Ha. destruct (has_claim (kwk s) (tid, b)); [|discriminate].
  destruct (nth_error (kb s) b) as [bk|] eqn:Hn; [|discriminate].
  destruct (forallb _ (ce_edges c)); [|discriminate]. inversion Ha; subst.
  unfold kent. simpl. rewrite (nth_error_upd_nth_eq _ _ _ _ bk Hn). reflexivity.
Qed.

(** THE MEMOISED FUNCTION: thread [tid0] writes the entry [c]; after ANY schedule of all
    threads and of the collector without another insertion into that bucket, a hit of any
    thread returns exactly the value edges of [c], for exactly the operator and operand edges
    of [c], and every operand and value edge denotes what it denoted when the entry was
    written *)
Theorem cache_hit_memo : forall s0 tid0 b c s1 r0 sched s2 tid op args nums s3 vals vnums,
  KInv s0 -> kstep good s0 (CAdd tid0 b c) = Some (s1, r0) ->
  krun good s1 sched = Some s2 ->
  (forall a, In a sched -> forall t c0, a <> CAdd t b c0) ->
  kstep good s2 (CGet tid b op args nums) = Some (s3, KRHit vals vnums) ->
  op = ce_op c /\ args = ce_args c /\ vals = ce_vals c /\ vnums = ce_vnums c /\
  (forall e, In e vals -> edge_ok_b (cn (kc s3)) e = true) /\
  forall e cfg, In e (ce_edges c) ->
    sem_edge (to_snap (kc s3)) e cfg = sem_edge (to_snap (kc s1)) e cfg.
Proof.
  intros s0 tid0 b c s1 r0 sched s2 tid op args nums s3 vals vnums H0 Ha Hr Hna Hg.
  pose proof (kstep_inv k terms nl _ _ _ _ H0 Ha) as H1.
  pose proof (krun_inv k terms nl _ _ _ H1 Hr) as H2.
  pose proof (cadd_ent good s0 tid0 b c s1 r0 Ha) as K1.
  destruct (cache_hit_valid s2 tid b op args nums s3 vals vnums H2 Hg)
    as [c2 [K2 [Hm [Ev [Evn [Hok [_ _]]]]]]].
  destruct (krun_entry_sem sched s1 s2 b c c2 H1 Hr Hna K1 K2) as [Ec Hsem]. subst c2.
  unfold key_match in Hm. rewrite !andb_true_iff in Hm. destruct Hm as [[M1 M2] _].
  apply N.eqb_eq in M1. apply edges_eqb_eq in M2.
  repeat split; auto.
  intros e cfg He. rewrite <- (Hsem e cfg He).
  assert (Hn : forall t c0, CGet tid b op args nums <> CAdd t b c0) by (intros; discriminate).
  destruct (kstep_entry_sem s2 _ s3 _ b c H2 Hg K2 Hn) as [E|[_ Hsem3]]; [|apply Hsem3; exact He].
  exfalso. destruct (kstep_ent_cases good s2 _ s3 _ b Hg) as [E'|[[t [c' [Ea _]]]|[Ea _]]];
    [congruence | discriminate | discriminate].
Qed.

End Thms.
