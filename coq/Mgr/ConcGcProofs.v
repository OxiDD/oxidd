(** * C05 — a whole collection frees exactly the unreferenced nodes

    [collect] (Mgr/ConcGc.v) is a schedule of [AGcNode] actions of the interleaving model
    ([collect_is_run]); therefore it preserves [CInv] (exact counts, well-formed
    snapshot).  Using the sweep order (a parent lies on a numerically lower level than
    its children and is visited first) it leaves no node with count 0
    ([collect_no_dead]); hence a node survives IFF it was reachable from an owned edge
    ([collect_exact]); tokens and their denotations are unchanged ([collect_keeps]);
    with no handle left the table is empty ([collect_all_dropped]); [collect] is
    idempotent.  Histories = actions of any threads interleaved with whole
    collections ([hrun]): counts stay exact and a handle that is held denotes the same
    function throughout ([history_inv], [history_sem]). *)

From Coq Require Import List NArith PArith Bool Arith Lia.
From OxiVerif Require Import DD.Table DD.TableExtra DD.TableProofs
  Mgr.Conc Mgr.ConcBase Mgr.ConcProofs Mgr.ConcSnap Mgr.ConcSem Mgr.ConcGc.
Import ListNotations.

Arguments N.add : simpl never.
Arguments N.sub : simpl never.
Arguments N.mul : simpl never.

Section GcProofs.
Variable k : kind.
Variable terms : list (N * N).
Variable nl : nat.

Notation step := (step k terms nl).
Notation run := (run k terms nl).
Notation CInv := (CInv k terms nl).
Notation to_snap := (to_snap k terms nl).
Notation gc_try := (gc_try k terms nl).
Notation gc_level := (gc_level k terms nl).
Notation collect := (collect k terms nl).
Notation collect_sched := (collect_sched k terms nl).
Notation hstep := (hstep k terms nl).
Notation hrun := (hrun k terms nl).

(** reachable from an owned edge (of any thread) through child edges *)
Definition reach_own (s : cst) (id : positive) : Prop :=
  exists o, In o (cown s) /\ creach (cn s) (eref (snd o)) (RN id).

Definition is_gc (a : act) : Prop := exists id, a = AGcNode id.
Definition gc_only (sched : list act) : Prop := forall a, In a sched -> is_gc a.

(** ** (a) the collection is a schedule of AGcNode actions *)

Lemma run_app : forall a b s,
  run s (a ++ b) = match run s a with Some s1 => run s1 b | None => None end.
Proof.
  induction a as [|x a IH]; intros b s; simpl; [reflexivity|].
  destruct (step s x) as [[s1 r]|]; [apply IH | reflexivity].
Qed.

Lemma run_cons : forall s a r,
  run s (a :: r) = match step s a with None => None | Some (s', _) => run s' r end.
Proof. reflexivity. Qed.

Lemma gc_try_run : forall s id, run s (gc_try_sched k terms nl s id) = Some (gc_try s id).
Proof.
  intros s id. unfold gc_try_sched, Mgr.ConcGc.gc_try.
  destruct (step s (AGcNode id)) as [[s' r]|] eqn:E; [rewrite run_cons, E|]; reflexivity.
Qed.

Lemma gc_ids_run : forall ids s,
  run s (gc_ids_sched k terms nl s ids) = Some (fold_left gc_try ids s).
Proof.
  induction ids as [|id r IH]; intros s; simpl; [reflexivity|].
  rewrite run_app, gc_try_run. apply IH.
Qed.

Lemma gc_levels_run : forall ls s,
  run s (gc_levels_sched k terms nl s ls) = Some (fold_left gc_level ls s).
Proof.
  induction ls as [|l r IH]; intros s; simpl; [reflexivity|].
  rewrite run_app, gc_ids_run. apply IH.
Qed.

Lemma gc_only_app : forall a b, gc_only a -> gc_only b -> gc_only (a ++ b).
Proof. intros a b Ha Hb x Hx. apply in_app_or in Hx. destruct Hx; auto. Qed.

Lemma gc_try_sched_only : forall s id, gc_only (gc_try_sched k terms nl s id).
Proof.
  intros s id x Hx. unfold gc_try_sched in Hx.
  destruct (step s (AGcNode id)); simpl in Hx; [|contradiction].
  destruct Hx as [<-|[]]. exists id. reflexivity.
Qed.

Lemma gc_ids_sched_only : forall ids s, gc_only (gc_ids_sched k terms nl s ids).
Proof.
  induction ids as [|id r IH]; intros s; simpl; [intros x []|].
  apply gc_only_app; [apply gc_try_sched_only | apply IH].
Qed.

Lemma gc_levels_sched_only : forall ls s, gc_only (gc_levels_sched k terms nl s ls).
Proof.
  induction ls as [|l r IH]; intros s; simpl; [intros x []|].
  apply gc_only_app; [apply gc_ids_sched_only | apply IH].
Qed.

Theorem collect_is_run : forall s,
  run s (collect_sched s) = Some (collect s) /\ gc_only (collect_sched s).
Proof. intros s. split; [apply gc_levels_run | apply gc_levels_sched_only]. Qed.

Theorem collect_inv : forall s, CInv s -> CInv (collect s).
Proof. intros s H. apply (run_inv k terms nl _ s _ H (proj1 (collect_is_run s))). Qed.

Theorem collect_wf : forall s, CInv s -> terms_unique_b terms = true ->
  CInv (collect s) /\ WF (to_snap (collect s)) /\ rc_exact_b (to_snap (collect s)) [] = true.
Proof.
  intros s H Ht. pose proof (collect_inv s H) as H'. split; [exact H'|]. apply conc_wf; assumption.
Qed.

(** counts are exact after any schedule of any threads from the empty manager *)
Theorem run_counts_exact : forall sched s, terms_unique_b terms = true ->
  run cempty sched = Some s ->
  WF (to_snap s) /\ rc_exact_b (to_snap s) [] = true.
Proof.
  intros sched s Ht Hr. apply conc_wf; [|exact Ht]. apply (reachable_inv k terms nl sched s Hr).
Qed.

(** ** facts about schedules of collector actions *)

Lemma gc_step_shape : forall s id s' r, CInv s -> step s (AGcNode id) = Some (s', r) ->
  exists gnd, cfind (cn s) id = Some gnd /\ crc gnd = 0%N /\ cown s' = cown s /\
  forall j, cfind (cn s') j =
            if Pos.eqb j id then None
            else option_map (fun nd => set_rc nd (crc nd - N.of_nat (cnt j (cch gnd)))) (cfind (cn s) j).
Proof.
  intros s id s' r H Hs. simpl in Hs.
  destruct (cfind (cn s) id) as [gnd|] eqn:F; [|discriminate].
  destruct (N.eqb_spec (crc gnd) 0) as [Hz|_]; [|discriminate]. inversion Hs; subst. simpl.
  exists gnd. repeat split; auto. intros j.
  rewrite cfind_dec_children, (cfind_cremove id _ j (ti_nodup _ _ _ _ (ci_tbl _ _ _ s H))).
  destruct (Pos.eqb j id); reflexivity.
Qed.

Lemma gc_step_sub : forall s id s' r j nd', CInv s -> step s (AGcNode id) = Some (s', r) ->
  cfind (cn s') j = Some nd' ->
  exists nd, cfind (cn s) j = Some nd /\ cl nd' = cl nd /\ cch nd' = cch nd.
Proof.
  intros s id s' r j nd' H Hs F'.
  destruct (gc_step_shape s id s' r H Hs) as [gnd [_ [_ [_ Hf]]]]. rewrite Hf in F'.
  destruct (Pos.eqb j id); [discriminate|].
  destruct (cfind (cn s) j) as [nd|]; simpl in F'; [|discriminate].
  exists nd. inversion F'; subst. simpl. auto.
Qed.

Lemma gc_run_facts : forall sched s s', CInv s -> gc_only sched -> run s sched = Some s' ->
  cown s' = cown s /\
  forall j nd', cfind (cn s') j = Some nd' ->
    exists nd, cfind (cn s) j = Some nd /\ cl nd' = cl nd /\ cch nd' = cch nd.
Proof.
  induction sched as [|a rest IH]; intros s s' H Hg Hr; simpl in Hr.
  - inversion Hr; subst. split; [reflexivity|]. intros j nd' F. exists nd'. auto.
  - destruct (step s a) as [[s1 res]|] eqn:Hs; [|discriminate].
    destruct (Hg a (or_introl eq_refl)) as [id ->].
    destruct (IH s1 s' (step_inv k terms nl _ _ _ _ H Hs) (fun x Hx => Hg x (or_intror Hx)) Hr)
      as [Ho Hsub].
    destruct (gc_step_shape s id s1 res H Hs) as [g2 [_ [_ [Ho1 _]]]].
    split; [congruence|]. intros j nd' F'.
    destruct (Hsub j nd' F') as [nd1 [F1 [L1 C1]]].
    destruct (gc_step_sub s id s1 res j nd1 H Hs F1) as [nd [F [L C]]].
    exists nd. split; [exact F|]. split; congruence.
Qed.

Lemma gc_only_idle : forall sched tid, gc_only sched -> forall a, In a sched -> act_tid a <> Some tid.
Proof. intros sched tid Hg a Ha. destruct (Hg a Ha) as [id ->]. discriminate. Qed.

(** reachability in a table obtained by removals is reachability in the original *)
Lemma creach_sub : forall t t' r r',
  (forall j nd', cfind t' j = Some nd' -> exists nd, cfind t j = Some nd /\ cl nd' = cl nd /\ cch nd' = cch nd) ->
  creach t' r r' -> creach t r r'.
Proof.
  intros t t' r r' Hsub Hr. induction Hr as [|j nd' e Hr IH F He]; [constructor|].
  destruct (Hsub j nd' F) as [nd [Fj [_ Hc]]].
  apply (creach_child t r j nd e IH Fj). rewrite <- Hc. exact He.
Qed.

(** ** (d) the sweep order leaves no node with count 0 *)

(** every stored node above level [l] has a positive count *)
Definition level_done (l : nat) (s : cst) : Prop :=
  forall j nd, cfind (cn s) j = Some nd -> cl nd < l -> crc nd <> 0%N.

Lemma gc_try_inv : forall s id, CInv s -> CInv (gc_try s id).
Proof.
  intros s id H. unfold Mgr.ConcGc.gc_try.
  destruct (step s (AGcNode id)) as [[s' r]|] eqn:E; [|exact H].
  apply (step_inv k terms nl _ _ _ _ H E).
Qed.

Lemma gc_try_cases : forall s id, CInv s ->
  (gc_try s id = s /\ forall nd, cfind (cn s) id = Some nd -> crc nd <> 0%N) \/
  (exists gnd r, cfind (cn s) id = Some gnd /\ crc gnd = 0%N /\
                 step s (AGcNode id) = Some (gc_try s id, r)).
Proof.
  intros s id H. unfold Mgr.ConcGc.gc_try.
  destruct (step s (AGcNode id)) as [[s' r]|] eqn:E.
  - right. destruct (gc_step_shape s id s' r H E) as [gnd [F [Hz _]]]. exists gnd, r. auto.
  - left. split; [reflexivity|]. intros nd F Hz. simpl in E. rewrite F, Hz in E. discriminate.
Qed.

(** removing [id] only decrements nodes below it *)
Lemma gc_try_level : forall s id j nd', CInv s ->
  (forall g, cfind (cn s) id = Some g -> cl nd' <= cl g) ->
  cfind (cn (gc_try s id)) j = Some nd' ->
  cfind (cn s) j = Some nd' /\ (j = id -> crc nd' <> 0%N).
Proof.
  intros s id j nd' H Hle F'.
  destruct (gc_try_cases s id H) as [[E Hnz]|[g [r [Fg [Hz Hs]]]]].
  - rewrite E in F'. split; [exact F'|]. intros ->. apply (Hnz nd' F').
  - destruct (gc_step_shape s id _ r H Hs) as [g' [Fg' [_ [_ Hf]]]].
    rewrite Fg in Fg'. inversion Fg'; subst g'. rewrite Hf in F'.
    destruct (Pos.eqb_spec j id) as [->|Hne]; [discriminate|]. split; [|contradiction].
    destruct (cfind (cn s) j) as [nd|] eqn:Fj; [|discriminate]. simpl in F'.
    assert (Hl : cl nd' = cl nd) by (inversion F'; reflexivity).
    assert (Hc : cnt j (cch g) = 0).
    { destruct (cnt j (cch g)) eqn:E; [reflexivity|]. exfalso.
      destruct (cnt_pos_In j (cch g) ltac:(lia)) as [e [He Er]].
      destruct (child_live k terms nl s id g e j H Fg He Er) as [ndc [Fc [_ Hlt]]].
      rewrite Fj in Fc. inversion Fc; subst ndc. specialize (Hle g Fg). lia. }
    rewrite Hc in F'. rewrite <- F'. destruct nd as [l c x]. unfold set_rc. simpl.
    rewrite N.sub_0_r. reflexivity.
Qed.

Lemma gc_try_sub : forall s id j nd', CInv s -> cfind (cn (gc_try s id)) j = Some nd' ->
  exists nd, cfind (cn s) j = Some nd /\ cl nd' = cl nd /\ cch nd' = cch nd.
Proof.
  intros s id j nd' H F'.
  destruct (gc_try_cases s id H) as [[E _]|[g [r [_ [_ Hs]]]]].
  - rewrite E in F'. exists nd'. auto.
  - apply (gc_step_sub s id _ r j nd' H Hs F').
Qed.

Lemma sweep_level : forall l rest s, CInv s -> level_done l s ->
  (forall id gnd, In id rest -> cfind (cn s) id = Some gnd -> cl gnd = l) ->
  (forall j nd, cfind (cn s) j = Some nd -> cl nd = l -> crc nd = 0%N -> In j rest) ->
  level_done (S l) (fold_left gc_try rest s).
Proof.
  induction rest as [|id rest IH]; intros s H Hd Hlv Hcov; simpl.
  - intros j nd F Hl Hz. destruct (Nat.eq_dec (cl nd) l) as [E|Hne].
    + apply (Hcov j nd F E Hz).
    + apply (Hd j nd F ltac:(lia) Hz).
  - assert (Hle : forall nd', cl nd' <= l -> forall g, cfind (cn s) id = Some g -> cl nd' <= cl g).
    { intros nd' Hl g Fg. rewrite (Hlv id g (or_introl eq_refl) Fg). exact Hl. }
    apply IH.
    + apply gc_try_inv. exact H.
    + (* the levels above stay done *)
      intros j nd' F' Hl.
      destruct (gc_try_level s id j nd' H (Hle nd' ltac:(lia)) F') as [Fj _]. apply (Hd j nd' Fj Hl).
    + intros id' g' Hin F'. destruct (gc_try_sub s id id' g' H F') as [g0 [F0 [L _]]].
      rewrite L. apply (Hlv id' g0 (or_intror Hin) F0).
    + (* the dead nodes of this level are still to be visited *)
      intros j nd' F' Hl Hz.
      destruct (gc_try_level s id j nd' H (Hle nd' ltac:(lia)) F') as [Fj Hid].
      destruct (Hcov j nd' Fj Hl Hz) as [E|Hin]; [elim (Hid (eq_sym E) Hz) | exact Hin].
Qed.

Lemma ids_at_level_In : forall t l id, In id (ids_at_level t l) <->
  exists nd, In (id, nd) t /\ cl nd = l.
Proof.
  intros t l id. unfold ids_at_level. rewrite in_map_iff. split.
  - intros [[i nd] [E Hin]]. simpl in E. subst i. apply filter_In in Hin. destruct Hin as [Hin Hl].
    simpl in Hl. apply Nat.eqb_eq in Hl. eauto.
  - intros [nd [Hin Hl]]. exists (id, nd). split; [reflexivity|]. apply filter_In. split; [exact Hin|].
    simpl. apply Nat.eqb_eq. exact Hl.
Qed.

Lemma gc_level_done : forall l s, CInv s -> level_done l s -> level_done (S l) (gc_level s l).
Proof.
  intros l s H Hd. unfold Mgr.ConcGc.gc_level. apply sweep_level; auto.
  - intros id gnd Hin F. apply ids_at_level_In in Hin. destruct Hin as [nd [Hin Hl]].
    rewrite (In_cfind _ _ _ (ti_nodup _ _ _ _ (ci_tbl _ _ _ s H)) Hin) in F. congruence.
  - intros j nd F Hl _. apply ids_at_level_In. exists nd. split; [apply cfind_In; exact F | exact Hl].
Qed.

Lemma gc_ids_inv : forall ids s, CInv s -> CInv (fold_left gc_try ids s).
Proof. induction ids as [|id r IH]; intros s H; simpl; [exact H | apply IH; apply gc_try_inv; exact H]. Qed.

Lemma gc_level_inv : forall l s, CInv s -> CInv (gc_level s l).
Proof. intros l s H. apply gc_ids_inv. exact H. Qed.

Lemma collect_levels_done : forall n a s, CInv s -> level_done a s ->
  level_done (a + n) (fold_left gc_level (seq a n) s).
Proof.
  induction n as [|n IH]; intros a s H Hd; simpl.
  - rewrite Nat.add_0_r. exact Hd.
  - replace (a + S n) with (S a + n) by lia.
    apply IH; [apply gc_level_inv; exact H | apply gc_level_done; assumption].
Qed.

Lemma stored_level_lt : forall s j nd, CInv s -> cfind (cn s) j = Some nd -> cl nd < nl.
Proof.
  intros s j nd H F. pose proof (ti_pre _ _ _ _ (ci_tbl _ _ _ s H) j nd F) as Hp.
  apply node_pre_b_spec in Hp. apply Hp.
Qed.

(** (d) after a collection no stored node has count 0 *)
Theorem collect_no_dead : forall s, CInv s ->
  forall j nd, cfind (cn (collect s)) j = Some nd -> crc nd <> 0%N.
Proof.
  intros s H j nd F.
  assert (Hd : level_done (0 + nl) (collect s)).
  { apply collect_levels_done; [exact H|]. intros j' nd' _ Hl. lia. }
  apply (Hd j nd F). simpl. apply (stored_level_lt (collect s) j nd (collect_inv s H) F).
Qed.

Corollary collect_no_dead_b : forall s, CInv s -> no_dead_b (to_snap (collect s)) = true.
Proof.
  intros s H. apply no_dead_b_spec. intros id nd F.
  destruct (find_node_to_snap_inv k terms nl _ id nd F) as [cnd [Fc ->]]. simpl.
  apply (collect_no_dead s H id cnd Fc).
Qed.

(** ** (b) exactly the unreferenced nodes are freed *)

(** exact counts and no count 0: every stored node is reachable from an owned edge
    (top-down induction on the level: a node of the top-most populated level has no
    parent) *)
Lemma no_dead_reach_own : forall s, CInv s ->
  (forall j nd, cfind (cn s) j = Some nd -> crc nd <> 0%N) ->
  forall id nd, cfind (cn s) id = Some nd -> reach_own s id.
Proof.
  intros s H Hnz.
  assert (Hind : forall n id nd, cl nd = n -> cfind (cn s) id = Some nd -> reach_own s id).
  { induction n as [n IH] using lt_wf_ind. intros id nd Hn F.
    pose proof (ci_rc _ _ _ s H id nd F) as Hrc. pose proof (Hnz id nd F) as Hz.
    destruct (owners (cown s) id) as [|a] eqn:Eo.
    - destruct (parents (cn s) id) as [|b] eqn:Ep; [exfalso; apply Hz; rewrite Hrc; reflexivity|].
      destruct (parents_pos_In (cn s) id ltac:(lia)) as [j [ndj [e [Hin [He Er]]]]].
      pose proof (In_cfind _ _ _ (ti_nodup _ _ _ _ (ci_tbl _ _ _ s H)) Hin) as Fj.
      destruct (child_live k terms nl s j ndj e id H Fj He Er) as [ndc [Fc [_ Hlt]]].
      rewrite F in Fc. inversion Fc; subst ndc.
      destruct (IH (cl ndj) ltac:(lia) j ndj eq_refl Fj) as [o [Ho Hr]].
      exists o. split; [exact Ho|]. rewrite <- Er. apply (creach_child _ _ j ndj e Hr Fj He).
    - destruct (owners_pos_In (cown s) id ltac:(lia)) as [o [Ho Er]].
      exists o. split; [exact Ho|]. rewrite Er. constructor. }
  intros id nd F. apply (Hind (cl nd) id nd eq_refl F).
Qed.

Theorem collect_exact : forall s id, CInv s ->
  ((exists nd', cfind (cn (collect s)) id = Some nd') <->
   (exists nd, cfind (cn s) id = Some nd) /\ reach_own s id) /\
  (forall nd', cfind (cn (collect s)) id = Some nd' ->
     exists nd, cfind (cn s) id = Some nd /\ cl nd' = cl nd /\ cch nd' = cch nd).
Proof.
  intros s id H.
  destruct (collect_is_run s) as [Hrun Hgc].
  destruct (gc_run_facts _ s _ H Hgc Hrun) as [Hown Hsub].
  split; [split|].
  - (* what survives was stored and is reachable *)
    intros [nd' F']. destruct (Hsub id nd' F') as [nd [F _]]. split; [eauto|].
    destruct (no_dead_reach_own (collect s) (collect_inv s H) (collect_no_dead s H) id nd' F')
      as [o [Ho Hr]].
    exists o. rewrite Hown in Ho. split; [exact Ho|]. apply (creach_sub _ _ _ _ Hsub Hr).
  - (* what is reachable survives *)
    intros [[nd F] [[tid e] [Ho Hr]]]. simpl in Hr.
    destruct (run_frame_idle k terms nl _ s _ tid e H Hrun (gc_only_idle _ tid Hgc) Ho) as [_ Hk].
    destruct (Hk (RN id) Hr) as [_ Hkeep]. destruct (Hkeep id nd eq_refl F) as [nd' [F' _]]. eauto.
  - intros nd' F'. apply (Hsub id nd' F').
Qed.

(** the executable reachability test decides [reach_own] *)

Lemma creach_from_term : forall t x r, creach t (RT x) r -> r = RT x.
Proof. intros t x r Hr. induction Hr as [|i nd e Hr IH F He]; [reflexivity | discriminate]. Qed.

Lemma creach_cons_left : forall t j nd e r, cfind t j = Some nd -> In e (cch nd) ->
  creach t (eref e) r -> creach t (RN j) r.
Proof.
  intros t j nd e r F He Hr. induction Hr as [|i ndi x Hr IH Fi Hx].
  - apply (creach_child t _ j nd e (creach_refl t _) F He).
  - apply (creach_child t _ i ndi x IH Fi Hx).
Qed.

Lemma creach_left : forall t j r, creach t (RN j) r ->
  r = RN j \/ exists nd e, cfind t j = Some nd /\ In e (cch nd) /\ creach t (eref e) r.
Proof.
  intros t j r Hr. induction Hr as [|i ndi x Hr IH Fi Hx]; [left; reflexivity|]. right.
  destruct IH as [E|[nd [e [F [He Hre]]]]].
  - inversion E; subst i. exists ndi, x. split; [exact Fi|]. split; [exact Hx | constructor].
  - exists nd, e. split; [exact F|]. split; [exact He|]. apply (creach_child t _ i ndi x Hre Fi Hx).
Qed.

Lemma reach_from_b_sound : forall t f r id, reach_from_b t f r id = true -> creach t r (RN id).
Proof.
  induction f as [|f IH]; intros r id Hb; destruct r as [x|j]; simpl in Hb; try discriminate;
    apply orb_true_iff in Hb; destruct Hb as [Hb|Hb]; try discriminate;
    try (apply Pos.eqb_eq in Hb; subst; constructor).
  destruct (cfind t j) as [nd|] eqn:F; [|discriminate].
  apply existsb_exists in Hb. destruct Hb as [e [He Hb]].
  apply (creach_cons_left t j nd e _ F He (IH _ _ Hb)).
Qed.

Lemma reach_from_b_complete : forall s id, CInv s -> forall f j,
  creach (cn s) (RN j) (RN id) ->
  (forall nd, cfind (cn s) j = Some nd -> nl - cl nd <= S f) ->
  reach_from_b (cn s) f (RN j) id = true.
Proof.
  intros s id H. induction f as [|f IH]; intros j Hr Hlv; simpl; apply orb_true_iff;
    (destruct (Pos.eqb_spec j id) as [E|Hne]; [left; reflexivity | right]);
    (destruct (creach_left _ _ _ Hr) as [E|[nd [e [F [He Hre]]]]]; [inversion E; congruence|]);
    (destruct (eref e) as [x|c] eqn:Er;
      [apply creach_from_term in Hre; discriminate|]);
    destruct (child_live k terms nl s j nd e c H F He Er) as [ndc [Fc [_ Hlt]]];
    pose proof (stored_level_lt s c ndc H Fc) as Hc; pose proof (Hlv nd F) as Hl.
  - lia.
  - rewrite F. apply existsb_exists. exists e. split; [exact He|]. rewrite Er. apply IH; [exact Hre|].
    intros nd' F'. rewrite Fc in F'. inversion F'; subst. lia.
Qed.

Theorem reach_own_b_spec : forall s id, CInv s -> (reach_own_b nl s id = true <-> reach_own s id).
Proof.
  intros s id H. unfold reach_own_b, reach_own. rewrite existsb_exists. split.
  - intros [o [Ho Hb]]. exists o. split; [exact Ho | apply (reach_from_b_sound _ _ _ _ Hb)].
  - intros [o [Ho Hr]]. exists o. split; [exact Ho|].
    destruct (eref (snd o)) as [x|j] eqn:Er; [apply creach_from_term in Hr; discriminate|].
    apply (reach_from_b_complete s id H nl j Hr). intros nd F. lia.
Qed.

(** ** (c) tokens and their denotations are unchanged *)

Theorem collect_keeps : forall s, CInv s ->
  cown (collect s) = cown s /\
  forall tid e c, In (tid, e) (cown s) ->
    sem_edge (to_snap (collect s)) e c = sem_edge (to_snap s) e c.
Proof.
  intros s H. destruct (collect_is_run s) as [Hrun Hgc].
  split; [apply (gc_run_facts _ s _ H Hgc Hrun)|].
  intros tid e c Ho.
  apply (run_sem_idle k terms nl _ s _ tid e c H Hrun (gc_only_idle _ tid Hgc) Ho).
Qed.

(** ** (e) all handles dropped: the table is empty again *)

Lemma table_nil : forall t : ctable, (forall id, cfind t id = None) -> t = [].
Proof.
  intros [|[i n] r] Hf; [reflexivity|]. specialize (Hf i). simpl in Hf.
  rewrite Pos.eqb_refl in Hf. discriminate.
Qed.

Theorem collect_all_dropped : forall s, CInv s -> cown s = [] -> collect s = cempty.
Proof.
  intros s H Ho.
  assert (Ht : cn (collect s) = []).
  { apply table_nil. intros id. destruct (cfind (cn (collect s)) id) as [nd'|] eqn:F'; [|reflexivity].
    destruct (proj1 (proj1 (collect_exact s id H)) (ex_intro _ nd' F')) as [_ [o [Hin _]]].
    rewrite Ho in Hin. destruct Hin. }
  pose proof (proj1 (collect_keeps s H)) as Hc. rewrite Ho in Hc.
  destruct (collect s) as [t o]. simpl in *. subst. reflexivity.
Qed.

(** ** (f) idempotence *)

Lemma gc_try_fix : forall s id, (forall j nd, cfind (cn s) j = Some nd -> crc nd <> 0%N) -> gc_try s id = s.
Proof.
  intros s id Hnz. unfold Mgr.ConcGc.gc_try. simpl.
  destruct (cfind (cn s) id) as [nd|] eqn:F; [|reflexivity].
  destruct (N.eqb_spec (crc nd) 0) as [Hz|_]; [|reflexivity]. exfalso. apply (Hnz id nd F Hz).
Qed.

Lemma collect_fix : forall s, (forall j nd, cfind (cn s) j = Some nd -> crc nd <> 0%N) -> collect s = s.
Proof.
  intros s Hnz. unfold Mgr.ConcGc.collect.
  assert (Hl : forall l, gc_level s l = s).
  { intros l. unfold Mgr.ConcGc.gc_level. induction (ids_at_level (cn s) l) as [|id r IH]; simpl;
      [reflexivity | rewrite gc_try_fix; assumption]. }
  induction (seq 0 nl) as [|l r IH]; simpl; [reflexivity | rewrite Hl; exact IH].
Qed.

Theorem collect_idem : forall s, CInv s -> collect (collect s) = collect s.
Proof. intros s H. apply collect_fix. apply collect_no_dead. exact H. Qed.

(** a collection changes nothing iff there is nothing to free *)
Theorem collect_noop_iff : forall s, CInv s ->
  (collect s = s <-> forall j nd, cfind (cn s) j = Some nd -> crc nd <> 0%N).
Proof.
  intros s H. split; [|apply collect_fix].
  intros E j nd F. rewrite <- E in F. apply (collect_no_dead s H j nd F).
Qed.

(** ** histories: actions of any threads interleaved with whole collections *)

Lemma hrun_is_run : forall hist s s', hrun s hist = Some s' ->
  exists sched, run s sched = Some s' /\
                forall a, In a sched -> In (HAct a) hist \/ is_gc a.
Proof.
  induction hist as [|h rest IH]; intros s s' Hr; simpl in Hr.
  - inversion Hr; subst. exists []. split; [reflexivity | intros a []].
  - destruct h as [a|]; simpl in Hr.
    + destruct (step s a) as [[s1 r]|] eqn:Hs; [|discriminate].
      destruct (IH s1 s' Hr) as [sched [Hrun Hin]]. exists (a :: sched). split.
      * simpl. rewrite Hs. exact Hrun.
      * intros x [<-|Hx]; [left; left; reflexivity|].
        destruct (Hin x Hx) as [Hh|Hg]; [left; right; exact Hh | right; exact Hg].
    + destruct (IH (collect s) s' Hr) as [sched [Hrun Hin]].
      destruct (collect_is_run s) as [Hc Hgc].
      exists (collect_sched s ++ sched). split.
      * rewrite run_app, Hc. exact Hrun.
      * intros x Hx. apply in_app_or in Hx. destruct Hx as [Hx|Hx]; [right; apply Hgc; exact Hx|].
        destruct (Hin x Hx) as [Hh|Hg]; [left; right; exact Hh | right; exact Hg].
Qed.

Theorem history_inv : forall hist s s', CInv s -> hrun s hist = Some s' -> CInv s'.
Proof.
  intros hist s s' H Hr. destruct (hrun_is_run hist s s' Hr) as [sched [Hrun _]].
  apply (run_inv k terms nl sched s s' H Hrun).
Qed.

(** after ANY history from the empty manager: well-formed, counts exact *)
Theorem history_counts_exact : forall hist s, terms_unique_b terms = true ->
  hrun cempty hist = Some s ->
  CInv s /\ WF (to_snap s) /\ rc_exact_b (to_snap s) [] = true.
Proof.
  intros hist s Ht Hr.
  pose proof (history_inv hist cempty s (CInv_empty k terms nl) Hr) as H.
  split; [exact H|]. apply conc_wf; assumption.
Qed.

(** some thread holds the edge [e] in every state of the history *)
Fixpoint held_through (s : cst) (hist : list hact) (e : edge) : Prop :=
  (exists tid, In (tid, e) (cown s)) /\
  match hist with
  | [] => True
  | h :: r => match hstep s h with Some s' => held_through s' r e | None => True end
  end.

(** a handle that is held denotes the same function at the end of the history as at the
    moment it was obtained, whatever else happens in between: operations of the same or
    of other threads on other handles, any number of collections *)
Theorem history_sem : forall hist s s' e c, CInv s -> hrun s hist = Some s' ->
  held_through s hist e ->
  sem_edge (to_snap s') e c = sem_edge (to_snap s) e c.
Proof.
  induction hist as [|h rest IH]; intros s s' e c H Hr Hh; simpl in Hr.
  - inversion Hr; subst. reflexivity.
  - destruct Hh as [[tid Ho] Hrest].
    destruct (hstep s h) as [s1|] eqn:Hs; [|discriminate].
    assert (H1 : CInv s1) by (apply (history_inv [h] s s1 H); simpl; rewrite Hs; reflexivity).
    rewrite (IH s1 s' e c H1 Hr Hrest).
    destruct h as [a|]; simpl in Hs.
    + destruct (step s a) as [[s2 r]|] eqn:Ha; [|discriminate]. inversion Hs; subst s2.
      apply (step_sem_preserved k terms nl s a s1 r e c H Ha).
      apply (owned_live_ref k terms nl s tid e H Ho).
    + inversion Hs; subst s1. apply (proj2 (collect_keeps s H) tid e c Ho).
Qed.

End GcProofs.
