(** * C07 — lock order: a wait-for graph under an ordered locking discipline is acyclic

    Abstract statement ([wait_for_acyclic]): locks carry a strict partial order
    [before]; a thread that waits for a lock holds only locks that come strictly
    before it (in particular it never re-acquires a lock it holds).  A thread is
    blocked by the holders of the lock it waits for and, for fair / writer-preferring
    locks (parking_lot's `RawRwLock::lock_shared` queues readers behind a waiting
    writer), by the threads queued AHEAD of it for the same lock.  Then no thread
    is (transitively) blocked by itself: there is no deadlock among the modelled
    locks.

    Instance ([oxidd_order]) = the acquisition order read off
    /repo/crates/oxidd-manager-index/src/manager.rs and /repo/crates/oxidd-cache/src/direct.rs:

      manager RwLock          `with_manager_shared` / `with_manager_exclusive` (outermost)
      gc_ongoing              `Manager::gc`: try-lock only, never waited for
      apply-cache bucket i    `pre_gc` locks bucket 0, 1, 2, ... in ascending order and keeps
                              them until `post_gc`; `get`/`add` use `try_lock` only
      level mutex             `LevelViewSet` of one level; at most one at a time
                              (`Manager::gc`: `for level in &self.unique_table { level.lock() .. }`,
                              `get_node` -> `level(..).get_or_insert`)
      store mutex             `Store::state` (`get_slot_from_shared`, `free_slot`), innermost;
                              also taken alone by the gc thread after the collection
      gc_signal mutex         only around the condition-variable wait of the gc thread, which
                              holds nothing else at that time

    That every thread of the implementation obeys the discipline is established by
    reading the code (see notes/C07-coq.md), not by this file. *)

From Coq Require Import Relations Relation_Operators Operators_Properties Arith Lia.

Section WaitFor.
Variables thread lock : Type.

(** strict partial order on locks *)
Variable before : lock -> lock -> Prop.
Hypothesis before_trans : forall a b c, before a b -> before b c -> before a c.
Hypothesis before_irrefl : forall a, ~ before a a.

(** a snapshot of the lock state *)
Variable holds : thread -> lock -> Prop.
Variable waits : thread -> lock -> Prop.
(** [ahead t' t]: both wait for the same lock and [t'] is served before [t] *)
Variable ahead : thread -> thread -> Prop.
Hypothesis ahead_trans : forall a b c, ahead a b -> ahead b c -> ahead a c.
Hypothesis ahead_irrefl : forall a, ~ ahead a a.

(** a blocked thread waits for one lock *)
Hypothesis waits_fun : forall t l l', waits t l -> waits t l' -> l = l'.

(** the discipline: whoever waits for [l] holds only locks strictly before [l] *)
Hypothesis discipline : forall t l l', waits t l -> holds t l' -> before l' l.

Definition blocked_by (t t' : thread) : Prop :=
  exists l, waits t l /\ (holds t' l \/ (waits t' l /\ ahead t' t)).

(** what a wait-for path from [t] to [t'] implies for the lock [l] that [t] waits for *)
Definition path_inv (t t' : thread) : Prop :=
  forall l, waits t l ->
    (exists l', holds t' l' /\ (l = l' \/ before l l')) \/
    (exists l', waits t' l' /\ before l l') \/
    (waits t' l /\ ahead t' t).

Lemma path_inv_holds : forall t t', clos_trans_n1 thread blocked_by t t' ->
  (exists l, waits t l) /\ path_inv t t'.
Proof.
  intros t t' Hp. induction Hp as [t' [m [Hw Hb]]|t' t'' [m [Hw Hb]] Hp [Hex IH]].
  - split; [eauto|]. intros l Hl. rewrite (waits_fun t l m Hl Hw).
    destruct Hb as [Hh|[Hw' Ha]]; [left; exists m; auto | right; right; auto].
  - split; [exact Hex|]. intros l Hl. destruct (IH l Hl) as [[l' [Hh Hle]]|[[l' [Hw' Hlt]]|[Hw' Ha]]].
    + (* t' holds l' (at or after l) and waits for m: l' before m *)
      pose proof (discipline t' m l' Hw Hh) as Hb'.
      assert (Hlm : before l m) by (destruct Hle as [->|Hle]; [exact Hb' | eapply before_trans; eauto]).
      destruct Hb as [Hh''|[Hw'' _]]; [left; exists m; auto | right; left; exists m; auto].
    + rewrite (waits_fun t' m l' Hw Hw') in Hb.
      destruct Hb as [Hh''|[Hw'' _]]; [left; exists l'; auto | right; left; exists l'; auto].
    + rewrite (waits_fun t' m l Hw Hw') in Hb.
      destruct Hb as [Hh''|[Hw'' Ha'']]; [left; exists l; auto|].
      right; right. split; [exact Hw''|]. eapply ahead_trans; eauto.
Qed.

(** no thread is transitively blocked by itself *)
Theorem wait_for_acyclic : forall t, ~ clos_trans thread blocked_by t t.
Proof.
  intros t Hc. apply clos_trans_tn1 in Hc.
  destruct (path_inv_holds t t Hc) as [[l Hl] Hinv].
  destruct (Hinv l Hl) as [[l' [Hh Hle]]|[[l' [Hw' Hlt]]|[_ Ha]]].
  - pose proof (discipline t l l' Hl Hh) as Hb. destruct Hle as [->|Hle].
    + exact (before_irrefl _ Hb).
    + exact (before_irrefl _ (before_trans _ _ _ Hle Hb)).
  - rewrite (waits_fun t l' l Hw' Hl) in Hlt. exact (before_irrefl _ Hlt).
  - exact (ahead_irrefl _ Ha).
Qed.

(** hence among the blocked threads of any non-empty finite wait-for chain the last
    one waits for a lock whose holders are all running: stated as "every chain of
    length > number of threads is impossible" is a consequence of acyclicity; the
    form used in the notes is [wait_for_acyclic]. *)

End WaitFor.

(** ** the acquisition order of the implementation *)

Inductive olock :=
| LManager
| LGcOngoing
| LBucket (i : nat)
| LLevel (i : nat)
| LStore
| LGcSignal.

(** lexicographic rank; all level mutexes share one rank (never two at a time) *)
Definition orank (l : olock) : nat * nat :=
  match l with
  | LManager => (0, 0)
  | LGcOngoing => (1, 0)
  | LBucket i => (2, i)
  | LLevel _ => (3, 0)
  | LStore => (4, 0)
  | LGcSignal => (5, 0)
  end.

Definition lex_lt (a b : nat * nat) : Prop :=
  fst a < fst b \/ (fst a = fst b /\ snd a < snd b).

Definition oxidd_order (a b : olock) : Prop := lex_lt (orank a) (orank b).

Lemma oxidd_order_trans : forall a b c, oxidd_order a b -> oxidd_order b c -> oxidd_order a c.
Proof. unfold oxidd_order, lex_lt. intros a b c. lia. Qed.

Lemma oxidd_order_irrefl : forall a, ~ oxidd_order a a.
Proof. unfold oxidd_order, lex_lt. intros a. lia. Qed.

(** the discipline in words of the instance: manager lock first, then the cache buckets
    in ascending order, then ONE level mutex, then the store mutex *)
Example oxidd_order_chain :
  oxidd_order LManager LGcOngoing /\ oxidd_order LGcOngoing (LBucket 0) /\
  (forall i j, i < j -> oxidd_order (LBucket i) (LBucket j)) /\
  (forall i j, oxidd_order (LBucket i) (LLevel j)) /\
  (forall i j, ~ oxidd_order (LLevel i) (LLevel j)) /\
  (forall i, oxidd_order (LLevel i) LStore) /\
  (forall i, oxidd_order LManager (LLevel i)).
Proof. unfold oxidd_order, lex_lt. simpl. repeat split; intros; lia. Qed.

(** the instance: any lock state in which every waiting thread holds only locks that
    come earlier in [oxidd_order] has an acyclic wait-for graph *)
Theorem oxidd_no_deadlock : forall (thread : Type)
  (holds waits : thread -> olock -> Prop) (ahead : thread -> thread -> Prop),
  (forall a b c, ahead a b -> ahead b c -> ahead a c) -> (forall a, ~ ahead a a) ->
  (forall t l l', waits t l -> waits t l' -> l = l') ->
  (forall t l l', waits t l -> holds t l' -> oxidd_order l' l) ->
  forall t, ~ clos_trans thread (blocked_by thread olock holds waits ahead) t t.
Proof.
  intros thread holds waits ahead Ht Hi Hf Hd.
  apply (wait_for_acyclic thread olock oxidd_order oxidd_order_trans oxidd_order_irrefl
           holds waits ahead Ht Hi Hf Hd).
Qed.

(** the hypotheses are satisfiable by a state with real contention: thread 0 (an
    application thread inside get_or_insert) holds the manager lock (shared) and the
    mutex of level 1 and waits for the store mutex; thread 1 (the collector) holds the
    manager lock (shared), gc_ongoing, two cache buckets and the store mutex, running;
    thread 2 waits for the mutex of level 1; thread 3 (reordering) waits for the
    manager lock (exclusive), thread 4 is a reader queued behind it. *)
Definition ex_holds (t : nat) (l : olock) : Prop :=
  match t with
  | 0 => l = LManager \/ l = LLevel 1
  | 1 => l = LManager \/ l = LGcOngoing \/ l = LBucket 0 \/ l = LBucket 1 \/ l = LStore
  | 2 => l = LManager
  | _ => False
  end.

Definition ex_waits (t : nat) (l : olock) : Prop :=
  match t with
  | 0 => l = LStore
  | 2 => l = LLevel 1
  | 3 => l = LManager
  | 4 => l = LManager
  | _ => False
  end.

Definition ex_ahead (a b : nat) : Prop := a = 3 /\ b = 4.

Example ex_lock_state_ok :
  (forall a b c, ex_ahead a b -> ex_ahead b c -> ex_ahead a c) /\ (forall a, ~ ex_ahead a a) /\
  (forall t l l', ex_waits t l -> ex_waits t l' -> l = l') /\
  (forall t l l', ex_waits t l -> ex_holds t l' -> oxidd_order l' l) /\
  blocked_by nat olock ex_holds ex_waits ex_ahead 2 0 /\
  blocked_by nat olock ex_holds ex_waits ex_ahead 0 1 /\
  blocked_by nat olock ex_holds ex_waits ex_ahead 4 3.
Proof.
  unfold ex_ahead. split; [intros; lia|]. split; [intros; lia|]. split; [|split].
  - intros t l l' H1 H2. destruct t as [|[|[|[|[|t]]]]]; simpl in *; try contradiction; congruence.
  - intros t l l' H1 H2. unfold oxidd_order, lex_lt.
    destruct t as [|[|[|[|[|t]]]]]; simpl in *; try contradiction; subst;
      repeat (destruct H2 as [H2|H2]); subst; simpl; lia.
  - split; [|split].
    + exists (LLevel 1). simpl. auto.
    + exists LStore. simpl. tauto.
    + exists LManager. simpl. split; [reflexivity|]. right. auto.
Qed.
