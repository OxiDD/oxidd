(** * C07 — the invariant of the interleaving model and its preservation

    [CInv] (structural table invariant, owned edges valid, reference counts
    EXACT = owners + parents) is preserved by every enabled action of every
    thread ([step_inv]), hence by every schedule ([run_inv]).  Further:
    result of [get_or_insert] ([goi_result], [goi_agree]), frame property
    ([step_frame], [step_keeps_token], [run_frame_idle]), safety and
    enabledness of the collector ([gc_safe], [gc_enabled], [release_safe]) and
    the simulation by the table-only projection ([erase_sim], [run_erase_sim]). *)

From Coq Require Import List NArith PArith Bool Arith Lia.
From OxiVerif Require Import DD.Table DD.TableProofs Mgr.Conc Mgr.ConcBase.
Import ListNotations.

Arguments N.add : simpl never.
Arguments N.sub : simpl never.
Arguments N.mul : simpl never.

Section Proofs.
Variable k : kind.
Variable terms : list (N * N).
Variable nl : nat.

Notation step := (step k terms nl).
Notation run := (run k terms nl).
Notation step_tbl := (step_tbl k terms nl).
Notation run_tbl := (run_tbl k terms nl).
Notation node_pre_b := (node_pre_b k terms nl).
Notation edge_ok_b := (edge_ok_b k terms).
Notation TInv := (TInv k terms nl).

Record CInv (s : cst) : Prop := mkCInv {
  (* keys pairwise distinct; every stored node passes [node_pre_b] w.r.t. the current
     table; per-level uniqueness *)
  ci_tbl : TInv (cn s);
  (* every owned edge points to a stored node / an existing terminal and is untagged
     unless the kind is BCDD *)
  ci_own : forall o, In o (cown s) -> edge_ok_b (cn s) (snd o) = true;
  (* reference counts are exact *)
  ci_rc : forall id nd, cfind (cn s) id = Some nd ->
      crc nd = N.of_nat (owners (cown s) id + parents (cn s) id)
}.

(** the clauses spelled out *)
Lemma CInv_flat : forall s,
  CInv s <->
  (NoDup (map fst (cn s)) /\
   (forall id nd, cfind (cn s) id = Some nd -> node_pre_b (cn s) (cl nd) (cch nd) = true) /\
   (forall i1 i2 n1 n2, cfind (cn s) i1 = Some n1 -> cfind (cn s) i2 = Some n2 ->
      cl n1 = cl n2 -> cch n1 = cch n2 -> i1 = i2) /\
   (forall o, In o (cown s) -> edge_ok_b (cn s) (snd o) = true) /\
   (forall id nd, cfind (cn s) id = Some nd ->
      crc nd = N.of_nat (owners (cown s) id + parents (cn s) id))).
Proof.
  intros s. split.
  - intros [[H1 H2 H3] H4 H5]. auto.
  - intros [H1 [H2 [H3 [H4 H5]]]]. constructor; [constructor|idtac|idtac]; assumption.
Qed.

Theorem CInv_empty : CInv cempty.
Proof. constructor; simpl; [apply TInv_nil | intros o [] | discriminate]. Qed.

Lemma untagged_inner_ok : forall t id nd, cfind t id = Some nd ->
  edge_ok_b t (mkEdge (RN id) false) = true.
Proof. intros t id nd F. unfold Conc.edge_ok_b. simpl. rewrite F. destruct k; reflexivity. Qed.

(** an owned edge to an inner node: the node is stored and its count is positive *)
Lemma owned_live : forall s o id, CInv s -> In o (cown s) -> eref (snd o) = RN id ->
  exists nd, cfind (cn s) id = Some nd /\ crc nd <> 0%N.
Proof.
  intros s o id H Ho Er.
  destruct (edge_ok_b_inner k terms _ _ id (ci_own s H o Ho) Er) as [nd F].
  exists nd. split; [exact F|]. rewrite (ci_rc s H id nd F).
  pose proof (In_owners_pos (cown s) id o Ho Er). lia.
Qed.

(** a child edge of a stored node: the child is stored and its count is positive *)
Lemma child_live : forall s j nd e id, CInv s -> cfind (cn s) j = Some nd -> In e (cch nd) ->
  eref e = RN id -> exists ndc, cfind (cn s) id = Some ndc /\ crc ndc <> 0%N /\ cl nd < cl ndc.
Proof.
  intros s j nd e id H F He Er.
  destruct (node_pre_b_child k terms nl _ _ _ e id (ti_pre _ _ _ _ (ci_tbl s H) j nd F) He Er)
    as [ndc [Fc Hl]].
  exists ndc. split; [exact Fc|]. split; [|exact Hl]. rewrite (ci_rc s H id ndc Fc).
  pose proof (parents_ge_cnt (cn s) id j nd (cfind_In _ _ _ F)).
  pose proof (In_cnt_pos id (cch nd) e He Er). lia.
Qed.

(** every child edge of a stored node is a valid edge value *)
Lemma child_edge_ok : forall s j nd x, CInv s -> cfind (cn s) j = Some nd -> In x (cch nd) ->
  edge_ok_b (cn s) x = true.
Proof.
  intros s j nd x H F Hx.
  apply (node_pre_b_child_ok k terms nl _ _ _ x (ti_pre _ _ _ _ (ci_tbl s H) j nd F) Hx).
Qed.

(** whatever can be borrowed from a valid edge is a valid edge *)
Lemma borrow_ok : forall s, CInv s -> forall f root e, edge_ok_b (cn s) root = true ->
  borrow_b (cn s) f root e = true -> edge_ok_b (cn s) e = true.
Proof.
  intros s H. induction f as [|f IH]; intros root e Hok Hb; simpl in Hb;
    apply orb_true_iff in Hb; destruct Hb as [Hb|Hb];
    try (apply edge_eqb_eq in Hb; subst; exact Hok); try discriminate.
  destruct (eref root) as [x|id]; [discriminate|].
  destruct (cfind (cn s) id) as [nd|] eqn:F; [|discriminate].
  apply existsb_exists in Hb. destruct Hb as [x [Hx Hb]].
  apply (IH x e (child_edge_ok s id nd x H F Hx) Hb).
Qed.

Lemma can_borrow_ok : forall s e, CInv s -> can_borrow_b nl s e = true -> edge_ok_b (cn s) e = true.
Proof.
  intros s e H Hb. unfold can_borrow_b in Hb. apply existsb_exists in Hb.
  destruct Hb as [o [Ho Hb]]. apply (borrow_ok s H nl (snd o) e (ci_own s H o Ho) Hb).
Qed.

(** a thread can always clone what it owns *)
Lemma own_can_borrow : forall s tid e, In (tid, e) (cown s) -> can_borrow_b nl s e = true.
Proof.
  intros s tid e Hin. unfold can_borrow_b. apply existsb_exists. exists (tid, e).
  split; [exact Hin|]. simpl snd.
  assert (X : edge_eqb e e = true) by (apply edge_eqb_eq; reflexivity).
  destruct nl; simpl; rewrite X; reflexivity.
Qed.

Inductive step_eff (s : cst) : act -> cst -> option positive -> Prop :=
| SE_found tid lvl ch fr own1 id (Hpre : node_pre_b (cn s) lvl ch = true)
    (Ht : take_toks tid ch (cown s) = Some own1) (Hf : find_shape (cn s) lvl ch = Some id) :
    step_eff s (AGoi tid lvl ch fr)
      (mkCst (rc_inc id (dec_children (cn s) ch)) ((tid, mkEdge (RN id) false) :: own1)) (Some id)
| SE_new tid lvl ch fr own1 (Hpre : node_pre_b (cn s) lvl ch = true)
    (Ht : take_toks tid ch (cown s) = Some own1) (Hf : find_shape (cn s) lvl ch = None)
    (Hfr : cfind (cn s) fr = None) :
    step_eff s (AGoi tid lvl ch fr)
      (mkCst ((fr, mkC lvl ch 1%N) :: cn s) ((tid, mkEdge (RN fr) false) :: own1)) (Some fr)
| SE_retain tid e id (Er : eref e = RN id) (Hb : can_borrow_b nl s e = true) :
    step_eff s (ARetain tid e) (mkCst (rc_inc id (cn s)) ((tid, e) :: cown s)) None
| SE_release tid e id own' (Er : eref e = RN id) (Ht : take_tok (tid, e) (cown s) = Some own') :
    step_eff s (ARelease tid e) (mkCst (rc_dec id (cn s)) own') None
| SE_move tid tid' e id own' (Er : eref e = RN id) (Ht : take_tok (tid, e) (cown s) = Some own') :
    step_eff s (AMove tid tid' e) (mkCst (cn s) ((tid', e) :: own')) None
| SE_not tid e id own' (Hk : is_bcdd k = true) (Er : eref e = RN id)
    (Ht : take_tok (tid, e) (cown s) = Some own') :
    step_eff s (ANot tid e) (mkCst (cn s) ((tid, mkEdge (eref e) (negb (etag e))) :: own')) None
| SE_gc gid gnd (Fg : cfind (cn s) gid = Some gnd) (Hz : crc gnd = 0%N) :
    step_eff s (AGcNode gid) (mkCst (dec_children (cremove gid (cn s)) (cch gnd)) (cown s)) None
| SE_retain_term tid e x (Er : eref e = RT x) : step_eff s (ARetain tid e) s None
| SE_release_term tid e x (Er : eref e = RT x) : step_eff s (ARelease tid e) s None
| SE_move_term tid tid' e x (Er : eref e = RT x) : step_eff s (AMove tid tid' e) s None
| SE_not_term tid e x (Er : eref e = RT x) : step_eff s (ANot tid e) s None.

Lemma step_spec : forall s a s' r, step s a = Some (s', r) -> step_eff s a s' r.
Proof.
  intros s a s' r Hs. destruct a as [tid lvl ch fr|tid e|tid e|tid tid' e|id|tid e]; simpl in Hs.
  - destruct (node_pre_b (cn s) lvl ch) eqn:Hpre; [|discriminate].
    destruct (take_toks tid ch (cown s)) as [own1|] eqn:Ht; [|discriminate].
    destruct (find_shape (cn s) lvl ch) as [id|] eqn:Hf.
    + inversion Hs; subst. apply SE_found; assumption.
    + destruct (cfind (cn s) fr) eqn:Hfr; [discriminate|]. inversion Hs; subst. apply SE_new; assumption.
  - destruct (eref e) as [x|id] eqn:Er.
    + destruct (cref_ok_b terms (cn s) (RT x)); inversion Hs; subst. apply (SE_retain_term _ _ _ x Er).
    + destruct (can_borrow_b nl s e) eqn:Hb; inversion Hs; subst. apply SE_retain; assumption.
  - destruct (eref e) as [x|id] eqn:Er.
    + destruct (cref_ok_b terms (cn s) (RT x)); inversion Hs; subst. apply (SE_release_term _ _ _ x Er).
    + destruct (take_tok (tid, e) (cown s)) as [own'|] eqn:Ht; inversion Hs; subst.
      apply SE_release; assumption.
  - destruct (eref e) as [x|id] eqn:Er.
    + destruct (cref_ok_b terms (cn s) (RT x)); inversion Hs; subst. apply (SE_move_term _ _ _ _ x Er).
    + destruct (take_tok (tid, e) (cown s)) as [own'|] eqn:Ht; inversion Hs; subst.
      apply (SE_move _ _ _ _ id _ Er Ht).
  - destruct (cfind (cn s) id) as [nd|] eqn:F; [|discriminate].
    destruct (N.eqb_spec (crc nd) 0) as [Hz|_]; inversion Hs; subst. apply SE_gc; assumption.
  - destruct (is_bcdd k) eqn:Hk; [|discriminate]. destruct (eref e) as [x|id] eqn:Er.
    + destruct (cref_ok_b terms (cn s) (RT x)); inversion Hs; subst. apply (SE_not_term _ _ _ x Er).
    + destruct (take_tok (tid, e) (cown s)) as [own'|] eqn:Ht; inversion Hs; subst.
      rewrite <- Er. apply (SE_not _ _ _ id _ Hk Er Ht).
Qed.

(** ** preservation, action by action *)

Lemma inv_recount : forall s t' own', CInv s -> cn_shape t' = cn_shape (cn s) ->
  (forall o, In o own' -> edge_ok_b (cn s) (snd o) = true) ->
  (forall j nd', cfind t' j = Some nd' -> crc nd' = N.of_nat (owners own' j + parents (cn s) j)) ->
  CInv (mkCst t' own').
Proof.
  intros s t' own' H E Ho Hrc. constructor; simpl.
  - apply (TInv_congr k terms nl (cn s)); [symmetry; exact E | apply (ci_tbl s H)].
  - intros o Hin. rewrite (edge_ok_b_congr k terms _ (cn s) _ E). apply Ho, Hin.
  - intros j nd' F. rewrite (parents_congr _ (cn s) j E). apply Hrc, F.
Qed.

Lemma inv_goi_found : forall s tid lvl ch own1 id, CInv s ->
  take_toks tid ch (cown s) = Some own1 -> find_shape (cn s) lvl ch = Some id ->
  CInv (mkCst (rc_inc id (dec_children (cn s) ch)) ((tid, mkEdge (RN id) false) :: own1)).
Proof.
  intros s tid lvl ch own1 id H Ht Hf.
  destruct (find_shape_Some _ _ _ id (ti_nodup _ _ _ _ (ci_tbl s H)) Hf) as [nd0 [F0 _]].
  apply (inv_recount s); [exact H | | |].
  - unfold rc_inc. rewrite cn_shape_rc_upd, cn_shape_dec_children. reflexivity.
  - intros o [<-|Ho]; [apply (untagged_inner_ok _ id nd0 F0)|].
    apply (ci_own s H). eapply take_toks_incl; eauto.
  - intros j nd' F. unfold rc_inc in F. rewrite cfind_rc_upd, cfind_dec_children in F.
    rewrite owners_cons. simpl snd. rewrite points_to_RN.
    pose proof (take_toks_owners tid ch _ _ j Ht) as Ho.
    destruct (cfind (cn s) j) as [nd|] eqn:Fj; simpl in F; [|destruct (Pos.eqb j id); discriminate].
    pose proof (ci_rc s H j nd Fj) as Hrc.
    rewrite (Pos.eqb_sym id j). destruct (Pos.eqb j id); inversion F; subst; simpl; lia.
Qed.

Lemma owners_absent : forall s id, CInv s -> cfind (cn s) id = None -> owners (cown s) id = 0.
Proof.
  intros s id H F. apply owners_zero_iff. intros o Ho Er.
  destruct (edge_ok_b_inner k terms _ _ id (ci_own s H o Ho) Er) as [nd F']. congruence.
Qed.

Lemma inv_goi_new : forall s tid lvl ch own1 fr, CInv s ->
  node_pre_b (cn s) lvl ch = true ->
  take_toks tid ch (cown s) = Some own1 -> find_shape (cn s) lvl ch = None ->
  cfind (cn s) fr = None ->
  CInv (mkCst ((fr, mkC lvl ch 1%N) :: cn s) ((tid, mkEdge (RN fr) false) :: own1)).
Proof.
  intros s tid lvl ch own1 fr H Hpre Ht Hf Hfr.
  constructor; simpl.
  - apply TInv_insert; auto. apply (ci_tbl s H).
  - intros o [<-|Ho].
    + simpl. apply (untagged_inner_ok _ fr (mkC lvl ch 1%N)). simpl. rewrite Pos.eqb_refl. reflexivity.
    + apply (edge_ok_b_ext k terms (cn s)).
      * intros id nd _ F. exists nd. rewrite cfind_cons.
        destruct (Pos.eqb_spec fr id) as [E|_]; [congruence | exact F].
      * apply (ci_own s H). eapply take_toks_incl; eauto.
  - intros j nd' F. rewrite owners_cons. simpl snd. rewrite points_to_RN.
    pose proof (take_toks_owners tid ch _ _ j Ht) as Ho.
    destruct (Pos.eqb_spec fr j) as [E|Hne].
    + subst j. inversion F; subst. simpl.
      pose proof (owners_absent s fr H Hfr).
      pose proof (node_pre_b_cnt_absent k terms nl _ _ _ fr Hpre Hfr).
      pose proof (TInv_parents_absent k terms nl _ fr (ci_tbl s H) Hfr). lia.
    + pose proof (ci_rc s H j nd' F). lia.
Qed.

Lemma inv_retain : forall s tid e id, CInv s -> eref e = RN id -> edge_ok_b (cn s) e = true ->
  CInv (mkCst (rc_inc id (cn s)) ((tid, e) :: cown s)).
Proof.
  intros s tid e id H Er Hok. apply (inv_recount s); [exact H | apply cn_shape_rc_upd | |].
  - intros o [<-|Ho]; [exact Hok | apply (ci_own s H o Ho)].
  - intros j nd' F. unfold rc_inc in F. rewrite cfind_rc_upd in F.
    rewrite owners_cons. simpl snd. unfold points_to. rewrite Er.
    destruct (cfind (cn s) j) as [nd|] eqn:Fj; simpl in F; [|destruct (Pos.eqb j id); discriminate].
    pose proof (ci_rc s H j nd Fj) as Hrc.
    rewrite (Pos.eqb_sym id j). destruct (Pos.eqb j id); inversion F; subst; simpl; lia.
Qed.

Lemma inv_release : forall s tid e id own', CInv s -> eref e = RN id ->
  take_tok (tid, e) (cown s) = Some own' ->
  CInv (mkCst (rc_dec id (cn s)) own').
Proof.
  intros s tid e id own' H Er Ht. apply (inv_recount s); [exact H | apply cn_shape_rc_upd | |].
  - intros o Ho. apply (ci_own s H). eapply take_tok_incl; eauto.
  - intros j nd' F. unfold rc_dec in F. rewrite cfind_rc_upd in F.
    pose proof (take_tok_owners _ _ _ j Ht) as Ho. simpl snd in Ho. unfold points_to in Ho.
    rewrite Er in Ho.
    destruct (cfind (cn s) j) as [nd|] eqn:Fj; simpl in F; [|destruct (Pos.eqb j id); discriminate].
    pose proof (ci_rc s H j nd Fj) as Hrc.
    rewrite (Pos.eqb_sym id j) in Ho. destruct (Pos.eqb j id); inversion F; subst; simpl; lia.
Qed.

(** a token is replaced by a token for the same node (move to another thread, tag flip) *)
Lemma inv_retoken : forall s x y own', CInv s ->
  take_tok x (cown s) = Some own' -> eref (snd y) = eref (snd x) ->
  edge_ok_b (cn s) (snd y) = true ->
  CInv (mkCst (cn s) (y :: own')).
Proof.
  intros s x y own' H Ht Er Hok. constructor; simpl.
  - apply (ci_tbl s H).
  - intros o [<-|Ho]; [exact Hok|]. apply (ci_own s H). eapply take_tok_incl; eauto.
  - intros j nd F. rewrite owners_cons. pose proof (take_tok_owners _ _ _ j Ht) as Ho.
    unfold points_to in *. rewrite Er. rewrite <- Ho. apply (ci_rc s H j nd F).
Qed.

Lemma inv_gc : forall s id nd, CInv s -> cfind (cn s) id = Some nd -> crc nd = 0%N ->
  CInv (mkCst (dec_children (cremove id (cn s)) (cch nd)) (cown s)).
Proof.
  intros s id nd H F Hz.
  pose proof (ci_rc s H id nd F) as Hrc.
  assert (Ho0 : owners (cown s) id = 0) by lia.
  assert (Hp0 : parents (cn s) id = 0) by lia.
  pose proof (ti_nodup _ _ _ _ (ci_tbl s H)) as Hnd.
  assert (E : cn_shape (dec_children (cremove id (cn s)) (cch nd)) = cn_shape (cremove id (cn s)))
    by apply cn_shape_dec_children.
  constructor; simpl.
  - apply (TInv_congr k terms nl (cremove id (cn s))); [symmetry; exact E|].
    apply TInv_remove; [apply (ci_tbl s H) | exact Hp0].
  - intros o Ho. rewrite (edge_ok_b_congr k terms _ _ _ E).
    apply (edge_ok_b_ext k terms (cn s)); [|apply (ci_own s H o Ho)].
    intros j ndj Er Fj. exists ndj. rewrite (cfind_cremove id _ j Hnd).
    destruct (Pos.eqb_spec j id) as [->|_]; [|exact Fj].
    exfalso. apply (proj1 (owners_zero_iff _ _) Ho0 o Ho Er).
  - intros j nd' Fj. rewrite cfind_dec_children, (cfind_cremove id _ j Hnd) in Fj.
    rewrite (parents_congr _ _ j E).
    destruct (Pos.eqb_spec j id) as [->|Hne]; [discriminate|].
    destruct (cfind (cn s) j) as [ndj|] eqn:Fj'; simpl in Fj; [|discriminate].
    inversion Fj; subst. simpl.
    pose proof (ci_rc s H j ndj Fj'). pose proof (parents_cremove id (cn s) nd j F). lia.
Qed.

Lemma bcdd_edge_ok_flip : forall t e, is_bcdd k = true -> edge_ok_b t e = true ->
  edge_ok_b t (mkEdge (eref e) (negb (etag e))) = true.
Proof.
  intros t e Hk H. unfold Conc.edge_ok_b, is_bcdd in *. simpl.
  destruct k; try discriminate. exact H.
Qed.

(** every enabled action of every thread preserves the invariant *)
Theorem step_inv : forall s a s' r, CInv s -> step s a = Some (s', r) -> CInv s'.
Proof.
  intros s a s' r H Hs. destruct (step_spec s a s' r Hs); try exact H.
  - eapply inv_goi_found; eauto.
  - apply inv_goi_new; assumption.
  - apply inv_retain; [exact H | exact Er | apply can_borrow_ok; assumption].
  - eapply inv_release; eauto.
  - apply (inv_retoken s (tid, e) (tid', e) own' H Ht eq_refl).
    apply (ci_own s H (tid, e)). eapply take_tok_In; eauto.
  - apply (inv_retoken s (tid, e) (tid, mkEdge (eref e) (negb (etag e))) own' H Ht eq_refl).
    apply (bcdd_edge_ok_flip _ e Hk). apply (ci_own s H (tid, e)). eapply take_tok_In; eauto.
  - apply inv_gc; assumption.
Qed.

(** any interleaving = any list of actions *)
Theorem run_inv : forall sched s s', CInv s -> run s sched = Some s' -> CInv s'.
Proof.
  induction sched as [|a r IH]; intros s s' H Hr; simpl in Hr.
  - inversion Hr; subst. exact H.
  - destruct (step s a) as [[s1 res]|] eqn:Hs; [|discriminate].
    apply (IH s1 s' (step_inv s a s1 res H Hs) Hr).
Qed.

Theorem reachable_inv : forall sched s, run cempty sched = Some s -> CInv s.
Proof. intros sched s. apply run_inv. apply CInv_empty. Qed.

(** ** the result of get_or_insert *)

Theorem goi_result : forall s tid lvl ch fr s' r, CInv s ->
  step s (AGoi tid lvl ch fr) = Some (s', r) ->
  exists id nd, r = Some id /\ cfind (cn s') id = Some nd /\ cl nd = lvl /\ cch nd = ch /\
                In (tid, mkEdge (RN id) false) (cown s') /\
                (find_shape (cn s) lvl ch = None -> id = fr /\ cfind (cn s) fr = None).
Proof.
  intros s tid lvl ch fr s' r H Hs. apply step_spec in Hs. inversion Hs; subst; simpl.
  - destruct (find_shape_Some _ _ _ id (ti_nodup _ _ _ _ (ci_tbl s H)) Hf) as [nd0 [F0 [H1 H2]]].
    exists id. eexists. split; [reflexivity|].
    unfold rc_inc. rewrite cfind_rc_upd, cfind_dec_children, Pos.eqb_refl, F0. simpl.
    split; [reflexivity|]. simpl. split; [exact H1|]. split; [exact H2|].
    split; [left; reflexivity | congruence].
  - exists fr. eexists. rewrite Pos.eqb_refl.
    split; [reflexivity|]. split; [reflexivity|]. simpl. auto.
Qed.

(** whenever a node of that level and children is stored, ANY thread's get_or_insert
    returns exactly its id, whatever slot [fr] the allocator proposes and whoever
    created the node; no second copy is made *)
Theorem goi_agree : forall s tid lvl ch fr s' r id nd, CInv s ->
  cfind (cn s) id = Some nd -> cl nd = lvl -> cch nd = ch ->
  step s (AGoi tid lvl ch fr) = Some (s', r) ->
  r = Some id /\ cn_shape (cn s') = cn_shape (cn s).
Proof.
  intros s tid lvl ch fr s' r id nd H F Hl Hc Hs.
  destruct (find_shape_complete (cn s) lvl ch id nd F Hl Hc) as [id' Hf].
  apply step_spec in Hs. inversion Hs; subst; simpl; [|congruence].
  replace id0 with id' in * by congruence.
  destruct (find_shape_Some _ _ _ id' (ti_nodup _ _ _ _ (ci_tbl s H)) Hf) as [nd0 [F0 [H1 H2]]].
  split.
  - f_equal. apply (ti_uniq _ _ _ _ (ci_tbl s H) id' id nd0 nd F0 F); congruence.
  - unfold rc_inc. rewrite cn_shape_rc_upd, cn_shape_dec_children. reflexivity.
Qed.

(** two threads asking for the same node one after the other get the same id *)
Corollary goi_twice : forall s t1 t2 lvl ch f1 f2 s1 s2 r1 r2, CInv s ->
  step s (AGoi t1 lvl ch f1) = Some (s1, r1) ->
  step s1 (AGoi t2 lvl ch f2) = Some (s2, r2) -> r2 = r1.
Proof.
  intros s t1 t2 lvl ch f1 f2 s1 s2 r1 r2 H S1 S2.
  destruct (goi_result _ _ _ _ _ _ _ H S1) as [id [nd [-> [F [Hl [Hc _]]]]]].
  apply (goi_agree s1 t2 lvl ch f2 s2 r2 id nd (step_inv _ _ _ _ H S1) F Hl Hc S2).
Qed.

(** ** frame: no action removes or alters a node that is in use *)

Definition same_shape (a b : cnode) : Prop := cl a = cl b /\ cch a = cch b.

Lemma step_shape : forall s a s' r id nd, step s a = Some (s', r) -> a <> AGcNode id ->
  cfind (cn s) id = Some nd -> exists nd', cfind (cn s') id = Some nd' /\ same_shape nd' nd.
Proof.
  intros s a s' r id nd Hs Hne F.
  assert (Hsh : forall t', cn_shape t' = cn_shape (cn s) ->
            exists nd', cfind t' id = Some nd' /\ same_shape nd' nd).
  { intros t' E. apply (shape_eq_find (cn s) t' id nd (eq_sym E) F). }
  destruct (step_spec s a s' r Hs); simpl; try (apply Hsh; reflexivity).
  - apply Hsh. unfold rc_inc. rewrite cn_shape_rc_upd, cn_shape_dec_children. reflexivity.
  - destruct (Pos.eqb_spec fr id) as [E|_]; [congruence | apply Hsh; reflexivity].
  - apply Hsh, cn_shape_rc_upd.
  - apply Hsh, cn_shape_rc_upd.
  - rewrite cfind_dec_children, cfind_cremove_other, F by congruence.
    eexists. split; [reflexivity | split; reflexivity].
Qed.

Theorem step_frame : forall s a s' r id nd, CInv s -> step s a = Some (s', r) ->
  cfind (cn s) id = Some nd -> crc nd <> 0%N ->
  exists nd', cfind (cn s') id = Some nd' /\ same_shape nd' nd.
Proof.
  intros s a s' r id nd _ Hs F Hnz. apply (step_shape s a s' r id nd Hs); [|exact F].
  intros ->. apply step_spec in Hs. inversion Hs; subst. congruence.
Qed.

(** the thread an action belongs to (the collector is no application thread) *)
Definition act_tid (a : act) : option nat :=
  match a with
  | AGoi tid _ _ _ | ARetain tid _ | ARelease tid _ | AMove tid _ _ | ANot tid _ => Some tid
  | AGcNode _ => None
  end.

Lemma take_tok_other : forall x own own' o, take_tok x own = Some own' -> o <> x ->
  In o own -> In o own'.
Proof.
  induction own as [|y r IH]; intros own' o H Hne Ho; simpl in H; [discriminate|].
  destruct (tok_eqb x y) eqn:E.
  - apply tok_eqb_eq in E. subst y. inversion H; subst.
    destruct Ho as [Ho|Ho]; [congruence | exact Ho].
  - destruct (take_tok x r) as [r'|] eqn:Er; [|discriminate]. inversion H; subst.
    destruct Ho as [Ho|Ho]; [left; exact Ho | right; eapply IH; eauto].
Qed.

Lemma take_toks_other : forall tid ch own own' o, take_toks tid ch own = Some own' ->
  fst o <> tid -> In o own -> In o own'.
Proof.
  induction ch as [|e r IH]; intros own own' o H Hne Ho; simpl in H.
  - inversion H; subst. exact Ho.
  - destruct (eref e) as [x|j].
    + eapply IH; eauto.
    + destruct (take_tok (tid, e) own) as [own1|] eqn:E1; [|discriminate].
      eapply IH; eauto. eapply take_tok_other; eauto. intros ->. apply Hne. reflexivity.
Qed.

(** the actions of the other threads and of the collector never take away a token *)
Theorem step_keeps_token : forall s a s' r tid e, step s a = Some (s', r) ->
  act_tid a <> Some tid -> In (tid, e) (cown s) -> In (tid, e) (cown s').
Proof.
  intros s a s' r tid e Hs Hne Hin.
  assert (Hneq : forall t x, Some t <> Some tid -> (tid, e) <> (t, x)) by (intros t x N E; inversion E; congruence).
  destruct (step_spec s a s' r Hs); simpl in *; try exact Hin.
  - right. eapply take_toks_other; [exact Ht | simpl; congruence | exact Hin].
  - right. eapply take_toks_other; [exact Ht | simpl; congruence | exact Hin].
  - right. exact Hin.
  - eapply take_tok_other; eauto.
  - right. eapply take_tok_other; eauto.
  - right. eapply take_tok_other; eauto.
Qed.

(** reachability through child edges inside the table *)
Inductive creach (t : ctable) (r : ref) : ref -> Prop :=
| creach_refl : creach t r r
| creach_child : forall id nd e, creach t r (RN id) -> cfind t id = Some nd -> In e (cch nd) ->
    creach t r (eref e).

(** one action of anybody: what is reachable from a node in use stays reachable and keeps
    its level and children (every node on the way is in use, hence framed) *)
Lemma step_frame_reach : forall s a s1 res root, CInv s -> step s a = Some (s1, res) ->
  (forall id, root = RN id -> exists nd, cfind (cn s) id = Some nd /\ crc nd <> 0%N) ->
  forall r, creach (cn s) root r ->
    creach (cn s1) root r /\
    forall id nd, r = RN id -> cfind (cn s) id = Some nd ->
      exists nd1, cfind (cn s1) id = Some nd1 /\ same_shape nd1 nd.
Proof.
  intros s a s1 res root H Hs Hroot r Hre. induction Hre as [|j nd x Hre [IH1 IH2] F Hx].
  - split; [constructor|]. intros id nd Er F. destruct (Hroot id Er) as [nd0 [F0 Hnz]].
    rewrite F in F0. inversion F0; subst nd0. apply (step_frame s a s1 res id nd H Hs F Hnz).
  - destruct (IH2 j nd eq_refl F) as [nd1 [F1 [_ Hc]]]. split.
    + apply (creach_child (cn s1) _ j nd1 x IH1 F1). rewrite Hc. exact Hx.
    + intros id ndc Er Fc. destruct (child_live s j nd x id H F Hx Er) as [nd0 [F0 [Hnz _]]].
      rewrite Fc in F0. inversion F0; subst nd0. apply (step_frame s a s1 res id ndc H Hs Fc Hnz).
Qed.

(** Corollary of the frame property: while a thread sits on a handle (it performs no action itself),
    the other threads and the collector, whatever they do and in whatever order, leave
    the handle and every node reachable from it stored with unchanged level and
    children. *)
Theorem run_frame_idle : forall sched s s' tid e, CInv s -> run s sched = Some s' ->
  (forall a, In a sched -> act_tid a <> Some tid) ->
  In (tid, e) (cown s) ->
  In (tid, e) (cown s') /\
  forall r, creach (cn s) (eref e) r ->
    creach (cn s') (eref e) r /\
    forall id nd, r = RN id -> cfind (cn s) id = Some nd ->
      exists nd', cfind (cn s') id = Some nd' /\ same_shape nd' nd.
Proof.
  induction sched as [|a rest IH]; intros s s' tid e H Hr Hidle Hin; simpl in Hr.
  - inversion Hr; subst. split; [exact Hin|]. intros r Hre. split; [exact Hre|].
    intros id nd _ F. exists nd. unfold same_shape. auto.
  - destruct (step s a) as [[s1 res]|] eqn:Hs; [|discriminate].
    pose proof (step_inv s a s1 res H Hs) as H1.
    assert (Hin1 : In (tid, e) (cown s1)).
    { eapply step_keeps_token; eauto. apply Hidle. left. reflexivity. }
    destruct (IH s1 s' tid e H1 Hr (fun a0 Ha => Hidle a0 (or_intror Ha)) Hin1) as [Hin' Hrest].
    split; [exact Hin'|]. intros r Hre.
    destruct (step_frame_reach s a s1 res (eref e) H Hs
                (fun id Er => owned_live s (tid, e) id H Hin Er) r Hre) as [Hre1 Hk1].
    destruct (Hrest r Hre1) as [Hre' Hk']. split; [exact Hre'|].
    intros id nd Er F. destruct (Hk1 id nd Er F) as [nd1 [F1 [L1 C1]]].
    destruct (Hk' id nd1 Er F1) as [nd' [F' [L' C']]].
    exists nd'. unfold same_shape. split; [exact F'|]. split; congruence.
Qed.

(** ** the collector *)

(** the collector only removes a node that no thread owns an edge to and that no
    stored node refers to *)
Theorem gc_safe : forall s id s' r, CInv s -> step s (AGcNode id) = Some (s', r) ->
  owners (cown s) id = 0 /\ parents (cn s) id = 0 /\
  (forall o, In o (cown s) -> eref (snd o) <> RN id) /\
  (forall j nd e, cfind (cn s) j = Some nd -> In e (cch nd) -> eref e <> RN id) /\
  cfind (cn s') id = None.
Proof.
  intros s id s' r H Hs. apply step_spec in Hs. inversion Hs; subst; simpl.
  pose proof (ci_rc s H id gnd Fg) as Hrc.
  assert (Ho0 : owners (cown s) id = 0) by lia.
  assert (Hp0 : parents (cn s) id = 0) by lia.
  split; [exact Ho0|]. split; [exact Hp0|]. split; [|split].
  - apply owners_zero_iff. exact Ho0.
  - intros j ndj e Fj He. apply (proj1 (parents_zero_iff _ _) Hp0 j ndj e (cfind_In _ _ _ Fj) He).
  - rewrite cfind_dec_children, (cfind_cremove id _ id (ti_nodup _ _ _ _ (ci_tbl s H))),
      Pos.eqb_refl. reflexivity.
Qed.

(** ... and every node without owner and parent can be collected *)
Theorem gc_enabled : forall s id nd, CInv s -> cfind (cn s) id = Some nd ->
  (crc nd = 0%N <-> owners (cown s) id = 0 /\ parents (cn s) id = 0) /\
  (crc nd = 0%N -> exists s', step s (AGcNode id) = Some (s', None)).
Proof.
  intros s id nd H F. pose proof (ci_rc s H id nd F) as Hrc. split; [split; lia|].
  intros Hz. simpl. rewrite F, Hz. simpl. eauto.
Qed.

(** the decrement of a release never underflows: whoever releases an edge he owns finds a
    positive count (for the decrements the collector makes at the children of the node it
    frees see [gc_dec_ok]) *)
Theorem release_safe : forall s tid e id, CInv s -> In (tid, e) (cown s) -> eref e = RN id ->
  exists nd s', cfind (cn s) id = Some nd /\ crc nd <> 0%N /\
                step s (ARelease tid e) = Some (s', None) /\
                exists nd', cfind (cn s') id = Some nd' /\ crc nd' = N.pred (crc nd).
Proof.
  intros s tid e id H Hin Er.
  destruct (owned_live s (tid, e) id H Hin Er) as [nd [F Hnz]].
  destruct (In_take_tok _ _ Hin) as [own' Ht].
  exists nd. eexists. split; [exact F|]. split; [exact Hnz|]. simpl. rewrite Er, Ht.
  split; [reflexivity|]. simpl. unfold rc_dec. rewrite cfind_rc_upd, Pos.eqb_refl, F. simpl.
  eexists. split; reflexivity.
Qed.

(** cloning is enabled for every edge that can be borrowed from an owned edge of any
    thread: the edge itself or a child edge of a node reachable from it *)
Theorem retain_enabled : forall s tid o e id, In o (cown s) ->
  borrow_b (cn s) nl (snd o) e = true -> eref e = RN id ->
  exists s', step s (ARetain tid e) = Some (s', None) /\ In (tid, e) (cown s') /\
             cn s' = rc_inc id (cn s).
Proof.
  intros s tid o e id Ho Hb Er. simpl. rewrite Er.
  assert (X : can_borrow_b nl s e = true).
  { unfold can_borrow_b. apply existsb_exists. exists o. auto. }
  rewrite X. eexists. split; [reflexivity|]. simpl. auto.
Qed.

(** ** the table-only projection simulates the full model *)

Theorem erase_sim : forall s a s' r, CInv s -> step s a = Some (s', r) ->
  match erase a with
  | Some ta => step_tbl (cn_shape (cn s)) ta = Some (cn_shape (cn s'), r)
  | None => cn_shape (cn s') = cn_shape (cn s) /\ r = None
  end.
Proof.
  intros s a s' r H Hs. pose proof (step_spec s a s' r Hs) as Hc.
  destruct Hc; simpl; auto; unfold Conc.step_tbl.
  - rewrite node_pre_b_cn_shape, find_shape_cn_shape, Hpre, Hf. unfold rc_inc.
    rewrite cn_shape_rc_upd, cn_shape_dec_children. reflexivity.
  - rewrite node_pre_b_cn_shape, find_shape_cn_shape, cfind_cn_shape, Hpre, Hf, Hfr. reflexivity.
  - split; [apply cn_shape_rc_upd | reflexivity].
  - split; [apply cn_shape_rc_upd | reflexivity].
  - destruct (gc_safe s gid _ _ H Hs) as [_ [Hp0 _]].
    rewrite cfind_cn_shape, has_parent_b_cn_shape, Fg, (proj2 (has_parent_b_false_iff _ _) Hp0).
    rewrite cn_shape_dec_children, cn_shape_cremove. reflexivity.
Qed.

(** the table actions of a schedule, in order *)
Definition erase_list (sched : list act) : list tact :=
  flat_map (fun a => match erase a with Some x => [x] | None => [] end) sched.

Theorem run_erase_sim : forall sched s s', CInv s -> run s sched = Some s' ->
  run_tbl (cn_shape (cn s)) (erase_list sched) = Some (cn_shape (cn s')).
Proof.
  induction sched as [|a rest IH]; intros s s' H Hr; simpl in Hr.
  - inversion Hr; subst. reflexivity.
  - destruct (step s a) as [[s1 res]|] eqn:Hs; [|discriminate].
    pose proof (erase_sim s a s1 res H Hs) as He.
    pose proof (IH s1 s' (step_inv s a s1 res H Hs) Hr) as Hrest.
    unfold erase_list. simpl. fold (erase_list rest).
    destruct (erase a) as [ta|].
    + simpl. rewrite He. exact Hrest.
    + simpl. destruct He as [He _]. rewrite <- He. exact Hrest.
Qed.

(** ** the count-tracking projection reproduces the table of the full model exactly *)

Lemma goi_dec_ok : forall s tid lvl ch own1, CInv s -> node_pre_b (cn s) lvl ch = true ->
  take_toks tid ch (cown s) = Some own1 -> dec_ok_b (cn s) ch = true.
Proof.
  intros s tid lvl ch own1 H Hpre Ht. unfold dec_ok_b. apply forallb_forall. intros e He.
  destruct (eref e) as [x|j] eqn:Er; [reflexivity|].
  destruct (node_pre_b_child k terms nl _ _ _ e j Hpre He Er) as [ndj [Fj _]]. rewrite Fj.
  apply N.leb_le. rewrite (ci_rc s H j ndj Fj), (take_toks_owners tid ch _ _ j Ht). lia.
Qed.

Lemma gc_dec_ok : forall s id nd, CInv s -> cfind (cn s) id = Some nd ->
  dec_ok_b (cremove id (cn s)) (cch nd) = true.
Proof.
  intros s id nd H F. unfold dec_ok_b. apply forallb_forall. intros e He.
  destruct (eref e) as [x|j] eqn:Er; [reflexivity|].
  destruct (child_live s id nd e j H F He Er) as [ndc [Fc [_ Hlt]]].
  rewrite (cfind_cremove id _ j (ti_nodup _ _ _ _ (ci_tbl s H))).
  destruct (Pos.eqb_spec j id) as [E|_].
  - subst j. rewrite F in Fc. inversion Fc; subst. lia.
  - rewrite Fc. apply N.leb_le. rewrite (ci_rc s H j ndc Fc).
    pose proof (parents_ge_cnt (cn s) j id nd (cfind_In _ _ _ F)). lia.
Qed.

Theorem erase_rc_sim : forall s a s' r, CInv s -> step s a = Some (s', r) ->
  match erase_rc a with
  | Some ra => step_rc k terms nl (cn s) ra = Some (cn s', r)
  | None => cn s' = cn s /\ r = None
  end.
Proof.
  intros s a s' r H Hs. destruct (step_spec s a s' r Hs); simpl erase_rc; rewrite ?Er; simpl; auto.
  - rewrite Hpre, Hf, (goi_dec_ok s tid lvl ch own1 H Hpre Ht). reflexivity.
  - rewrite Hpre, Hf, Hfr. reflexivity.
  - destruct (edge_ok_b_inner k terms _ _ id (can_borrow_ok s e H Hb) Er) as [nd F].
    rewrite F. reflexivity.
  - destruct (owned_live s (tid, e) id H (take_tok_In _ _ _ Ht) Er) as [nd [F Hnz]].
    rewrite F. destruct (N.eqb_spec (crc nd) 0); [contradiction | reflexivity].
  - rewrite Fg, Hz, (gc_dec_ok s gid gnd H Fg). reflexivity.
Qed.

Definition erase_rc_list (sched : list act) : list ract :=
  flat_map (fun a => match erase_rc a with Some x => [x] | None => [] end) sched.

Theorem run_erase_rc_sim : forall sched s s', CInv s -> run s sched = Some s' ->
  run_rc k terms nl (cn s) (erase_rc_list sched) = Some (cn s').
Proof.
  induction sched as [|a rest IH]; intros s s' H Hr; simpl in Hr.
  - inversion Hr; subst. reflexivity.
  - destruct (step s a) as [[s1 res]|] eqn:Hs; [|discriminate].
    pose proof (erase_rc_sim s a s1 res H Hs) as He.
    pose proof (IH s1 s' (step_inv s a s1 res H Hs) Hr) as Hrest.
    unfold erase_rc_list. simpl. fold (erase_rc_list rest).
    destruct (erase_rc a) as [ra|].
    + simpl. rewrite He. exact Hrest.
    + simpl. destruct He as [He _]. rewrite <- He. exact Hrest.
Qed.

(** the count-tracking replay forgets to the table-only replay's shape for the two
    actions that do not touch the shape, and keeps the structural invariant for
    get_or_insert *)
Theorem step_rc_shape : forall t a t' r, step_rc k terms nl t a = Some (t', r) ->
  match a with
  | RGoi lvl ch fr => step_tbl (cn_shape t) (TGoi lvl ch fr) = Some (cn_shape t', r)
  | RInc _ | RDec _ => cn_shape t' = cn_shape t /\ r = None
  | RGc id => cn_shape t' = cremove id (cn_shape t) /\ r = None
  end.
Proof.
  intros t a t' r Hs. destruct a as [lvl ch fr|id|id|id]; simpl in Hs.
  - unfold Conc.step_tbl. rewrite node_pre_b_cn_shape, find_shape_cn_shape, cfind_cn_shape.
    destruct (node_pre_b t lvl ch); [|discriminate].
    destruct (find_shape t lvl ch) as [id0|].
    + destruct (dec_ok_b t ch); [|discriminate]. inversion Hs; subst. unfold rc_inc.
      rewrite cn_shape_rc_upd, cn_shape_dec_children. reflexivity.
    + destruct (cfind t fr); [discriminate|]. inversion Hs; subst. reflexivity.
  - destruct (cfind t id); [|discriminate]. inversion Hs; subst.
    split; [apply cn_shape_rc_upd | reflexivity].
  - destruct (cfind t id) as [nd|]; [|discriminate]. destruct (N.eqb (crc nd) 0); [discriminate|].
    inversion Hs; subst. split; [apply cn_shape_rc_upd | reflexivity].
  - destruct (cfind t id) as [nd|]; [|discriminate]. destruct (N.eqb (crc nd) 0); [|discriminate].
    destruct (dec_ok_b (cremove id t) (cch nd)); [|discriminate]. inversion Hs; subst.
    rewrite cn_shape_dec_children, cn_shape_cremove. auto.
Qed.

(** the table-only replay keeps the structural invariant by itself (no ownership
    information needed): what the driver checks on the implementation's log *)
Theorem step_tbl_inv : forall t a t' r, TInv t -> step_tbl t a = Some (t', r) -> TInv t'.
Proof.
  intros t a t' r H Hs. destruct a as [lvl ch fr|id]; simpl in Hs.
  - destruct (node_pre_b t lvl ch) eqn:Hpre; [|discriminate].
    destruct (find_shape t lvl ch) as [id|] eqn:Hf.
    + inversion Hs; subst. exact H.
    + destruct (cfind t fr) eqn:Hfr; [discriminate|]. inversion Hs; subst.
      apply TInv_insert; auto.
  - destruct (cfind t id) as [nd|]; [|discriminate].
    destruct (has_parent_b t id) eqn:Hp; [discriminate|]. inversion Hs; subst.
    apply TInv_remove; [exact H | apply has_parent_b_false_iff; exact Hp].
Qed.

End Proofs.
