(** * C07 — no corruption: the function denoted by a handle never changes

    [step_sem_preserved]: an enabled action of any thread (or of the collector) leaves
    the denotation ([sem_edge] on the snapshot) of every edge whose target is in use
    (owned by some thread or referenced by a stored node) unchanged.
    [run_sem_idle]: while a thread sits on a handle, no schedule of the other
    threads and the collector changes what the handle denotes. *)

From Coq Require Import List NArith PArith Bool Arith Lia FMapPositive.
From OxiVerif Require Import DD.Table DD.TableExtra DD.TableProofs
  Mgr.Conc Mgr.ConcBase Mgr.ConcProofs Mgr.ConcSnap.
Import ListNotations.

(** ** two snapshots that agree on a child-closed set of references *)

Section Agree.
Variables s1 s2 : snap.
Variable P : ref -> Prop.
Hypothesis Hkind : s_kind s1 = s_kind s2.
Hypothesis Hterms : s_terms s1 = s_terms s2.
Hypothesis Hlev : nlevels s1 = nlevels s2.
Hypothesis Hagree : forall id, P (RN id) ->
  match find_node s1 id with
  | None => True
  | Some n1 =>
    exists n2, find_node s2 id = Some n2 /\ nlevel n2 = nlevel n1 /\ nchildren n2 = nchildren n1 /\
               forall e, In e (nchildren n1) -> P (eref e)
  end.
Hypothesis Hpresent : forall id, P (RN id) -> find_node s1 id <> None.

Lemma term_val_agree : forall t, term_val s1 t = term_val s2 t.
Proof. intros t. unfold term_val. rewrite Hterms. reflexivity. Qed.

Lemma semk_agree : forall f r c, P r -> semk s1 f r c = semk s2 f r c.
Proof.
  induction f as [|f IH]; intros r c Hp; destruct r as [t|id];
    try (rewrite !semk_T; apply term_val_agree).
  - reflexivity.
  - rewrite !semk_S. pose proof (Hagree id Hp) as Ha. pose proof (Hpresent id Hp) as Hq.
    destruct (find_node s1 id) as [n1|]; [|congruence].
    destruct Ha as [n2 [F2 [Hl [Hc Hch]]]]. rewrite F2, Hl, Hc.
    destruct (nth_error (nchildren n1) (c (nlevel n1))) as [e|] eqn:He; [|reflexivity].
    apply IH. apply Hch. eapply nth_error_In. exact He.
Qed.

Lemma semc_agree : forall f e c, P (eref e) -> semc s1 f e c = semc s2 f e c.
Proof.
  induction f as [|f IH]; intros e c Hp; destruct (eref e) as [t|id] eqn:Er;
    try (rewrite !(semc_T _ _ _ _ t Er); reflexivity).
  - rewrite !(semc_O _ _ _ id Er). reflexivity.
  - rewrite !(semc_S _ _ _ _ id Er). pose proof (Hagree id Hp) as Ha. pose proof (Hpresent id Hp) as Hq.
    destruct (find_node s1 id) as [n1|]; [|congruence].
    destruct Ha as [n2 [F2 [Hl [Hc Hch]]]]. rewrite F2, Hl, Hc.
    destruct (nth_error (nchildren n1) (c (nlevel n1))) as [e'|] eqn:He; [|reflexivity].
    rewrite (IH e' c); [reflexivity|]. apply Hch. eapply nth_error_In. exact He.
Qed.

Lemma semz_agree : forall f lvl r c, P r -> semz s1 f lvl r c = semz s2 f lvl r c.
Proof.
  induction f as [|f IH]; intros lvl r c Hp; destruct r as [t|id];
    try (rewrite !semz_T, term_val_agree, Hlev; reflexivity).
  - reflexivity.
  - rewrite !semz_S. pose proof (Hagree id Hp) as Ha. pose proof (Hpresent id Hp) as Hq.
    destruct (find_node s1 id) as [n1|]; [|congruence].
    destruct Ha as [n2 [F2 [Hl [Hc Hch]]]]. rewrite F2, Hl, Hc.
    destruct (Nat.ltb (nlevel n1) lvl); [reflexivity|].
    destruct (all_lo c lvl (nlevel n1 - lvl)); [|reflexivity].
    destruct (nth_error (nchildren n1) (c (nlevel n1))) as [e|] eqn:He; [|reflexivity].
    apply IH. apply Hch. eapply nth_error_In. exact He.
Qed.

Lemma sem_edge_agree : forall e c, P (eref e) -> sem_edge s1 e c = sem_edge s2 e c.
Proof.
  intros e c Hp. unfold sem_edge. rewrite <- Hkind, <- Hlev.
  destruct (s_kind s1); try (apply semk_agree; exact Hp).
  - rewrite (semc_agree _ e c Hp). reflexivity.
  - rewrite (semz_agree _ 0 (eref e) c Hp). reflexivity.
Qed.

End Agree.

Section Sem.
Variable k : kind.
Variable terms : list (N * N).
Variable nl : nat.

Notation to_snap := (to_snap k terms nl).
Notation CInv := (CInv k terms nl).
Notation run := (run k terms nl).
Notation step := (step k terms nl).

(** the target of the reference is in use: a terminal, or a stored node with a
    positive count (owned by a thread or referenced by a stored node) *)
Definition live_ref (s : cst) (r : ref) : Prop :=
  forall id, r = RN id -> exists nd, cfind (cn s) id = Some nd /\ crc nd <> 0%N.

Lemma owned_live_ref : forall s tid e, CInv s -> In (tid, e) (cown s) -> live_ref s (eref e).
Proof. intros s tid e H Hin id Er. apply (owned_live k terms nl s (tid, e) id H Hin Er). Qed.

(** the premises of Section Agree for the snapshots before and after one action *)
Lemma step_agree_nodes : forall s a s' r, CInv s -> step s a = Some (s', r) ->
  forall id, live_ref s (RN id) ->
  match find_node (to_snap s) id with
  | None => True
  | Some n1 =>
    exists n2, find_node (to_snap s') id = Some n2 /\ nlevel n2 = nlevel n1 /\
               nchildren n2 = nchildren n1 /\
               forall e, In e (nchildren n1) -> live_ref s (eref e)
  end.
Proof.
  intros s a s' r H Hs id Hp. rewrite !find_node_to_snap.
  destruct (Hp id eq_refl) as [nd [F Hnz]]. rewrite F. simpl.
  destruct (step_frame k terms nl s a s' r id nd H Hs F Hnz) as [nd' [F' [L C]]].
  exists (to_node nd'). rewrite F'. simpl. repeat split; auto.
  intros x Hx j Er. destruct (child_live k terms nl s id nd x j H F Hx Er) as [ndc [Fc [Hc _]]]. eauto.
Qed.

Lemma step_agree_present : forall s id, live_ref s (RN id) -> find_node (to_snap s) id <> None.
Proof.
  intros s id Hp. rewrite find_node_to_snap. destruct (Hp id eq_refl) as [nd [F _]].
  rewrite F. discriminate.
Qed.

Lemma nlevels_step : forall s s', nlevels (to_snap s) = nlevels (to_snap s').
Proof. intros. rewrite !nlevels_to_snap. reflexivity. Qed.

(** one action of anybody does not change the meaning of any edge in use *)
Theorem step_sem_preserved : forall s a s' r e c, CInv s -> step s a = Some (s', r) ->
  live_ref s (eref e) -> sem_edge (to_snap s') e c = sem_edge (to_snap s) e c.
Proof.
  intros s a s' r e c H Hs Hl. symmetry.
  apply (sem_edge_agree (to_snap s) (to_snap s') (live_ref s) eq_refl eq_refl (nlevels_step s s')
           (step_agree_nodes s a s' r H Hs) (step_agree_present s)). exact Hl.
Qed.

(** Corollary: while thread [tid] sits on the handle [e] (it performs no action), no
    schedule of the other threads and the collector changes what [e] denotes *)
Theorem run_sem_idle : forall sched s s' tid e c, CInv s -> run s sched = Some s' ->
  (forall a, In a sched -> act_tid a <> Some tid) ->
  In (tid, e) (cown s) ->
  In (tid, e) (cown s') /\ sem_edge (to_snap s') e c = sem_edge (to_snap s) e c.
Proof.
  induction sched as [|a rest IH]; intros s s' tid e c H Hr Hidle Hin; simpl in Hr.
  - inversion Hr; subst. auto.
  - destruct (Conc.step k terms nl s a) as [[s1 res]|] eqn:Hs; [|discriminate].
    pose proof (step_inv k terms nl s a s1 res H Hs) as H1.
    assert (Hin1 : In (tid, e) (cown s1)).
    { eapply step_keeps_token; eauto. apply Hidle. left. reflexivity. }
    destruct (IH s1 s' tid e c H1 Hr (fun a0 Ha => Hidle a0 (or_intror Ha)) Hin1) as [Hin' Hsem].
    split; [exact Hin'|]. rewrite Hsem.
    apply (step_sem_preserved s a s1 res e c H Hs). eapply owned_live_ref; eauto.
Qed.

(** ** what the handle returned by get_or_insert denotes

    The returned edge denotes "the child selected by the choice at level [lvl]",
    where the children are read in the state BEFORE the action: the result is a
    function of the caller's arguments only, whether the node was found (created
    earlier by any thread) or newly created, and whatever the other threads hold. *)

Lemma goi_facts : forall s tid lvl ch fr s' id, CInv s ->
  step s (AGoi tid lvl ch fr) = Some (s', Some id) ->
  CInv s' /\
  (exists nd, cfind (cn s') id = Some nd /\ cl nd = lvl /\ cch nd = ch) /\
  (forall x, In x ch -> live_ref s (eref x)).
Proof.
  intros s tid lvl ch fr s' id H Hs.
  split; [apply (step_inv k terms nl s _ s' (Some id) H Hs)|]. split.
  - destruct (goi_result k terms nl s tid lvl ch fr s' (Some id) H Hs)
      as [id' [nd [E [F [Hl [Hc _]]]]]]. inversion E; subst id'. eauto.
  - intros x Hx j Er. simpl in Hs.
    destruct (node_pre_b k terms nl (cn s) lvl ch) eqn:Hpre; [|discriminate].
    destruct (take_toks tid ch (cown s)) as [own1|] eqn:Ht; [|discriminate].
    apply (owned_live k terms nl s (tid, x) j H); [|exact Er].
    eapply take_toks_owned; eauto.
Qed.

(** the handle returned by get_or_insert denotes the node that was asked for:
    its children are the passed edges, and their meaning is the one they had before *)
Theorem goi_children_sem : forall s tid lvl ch fr s' id x c, CInv s ->
  step s (AGoi tid lvl ch fr) = Some (s', Some id) ->
  In x ch -> sem_edge (to_snap s') x c = sem_edge (to_snap s) x c.
Proof.
  intros s tid lvl ch fr s' id x c H Hs Hx.
  apply (step_sem_preserved s _ s' (Some id) x c H Hs).
  apply (goi_facts s tid lvl ch fr s' id H Hs), Hx.
Qed.

(** a child of a stored node of the (well-formed) snapshot: enough fuel one level down *)
Lemma child_fuel : forall s id nd x, CInv s -> terms_unique_b terms = true ->
  cfind (cn s) id = Some nd -> In x (cch nd) ->
  ref_ok (to_snap s) (eref x) /\ nlevels (to_snap s) - rlevel (to_snap s) (eref x) < nl /\
  S (cl nd) <= rlevel (to_snap s) (eref x).
Proof.
  intros s id nd x H Ht F Hx.
  pose proof (conc_WF k terms nl s H Ht) as W.
  assert (Fs : find_node (to_snap s) id = Some (to_node nd)) by (rewrite find_node_to_snap, F; reflexivity).
  destruct (wf_child _ W id (to_node nd) x Fs Hx) as [Hok Hlt]. simpl in Hlt.
  pose proof (rlevel_le _ W (eref x)) as Hle. rewrite nlevels_to_snap in *.
  split; [exact Hok|]. split; lia.
Qed.

Theorem goi_sem_kary : forall s tid lvl ch fr s' id c, CInv s -> terms_unique_b terms = true ->
  k <> KBcdd -> k <> KZbdd ->
  step s (AGoi tid lvl ch fr) = Some (s', Some id) ->
  sem_edge (to_snap s') (mkEdge (RN id) false) c =
  match nth_error ch (c lvl) with
  | Some x => sem_edge (to_snap s) x c
  | None => None
  end.
Proof.
  intros s tid lvl ch fr s' id c H Ht K1 K2 Hs.
  destruct (goi_facts s tid lvl ch fr s' id H Hs) as [H' [[nd [F [Hl Hc]]] Hlive]].
  assert (Hk : forall st e, sem_edge (to_snap st) e c = semk (to_snap st) (S nl) (eref e) c).
  { intros st e. unfold sem_edge. rewrite nlevels_to_snap. simpl s_kind. destruct k; congruence. }
  rewrite Hk. simpl eref. rewrite semk_S, find_node_to_snap, F. simpl. rewrite Hl, Hc.
  destruct (nth_error ch (c lvl)) as [x|] eqn:Hx; [|reflexivity].
  assert (Hin : In x ch) by (eapply nth_error_In; eauto).
  destruct (child_fuel s' id nd x H' Ht F ltac:(rewrite Hc; exact Hin)) as [Hok [Hf _]].
  rewrite Hk. rewrite (semk_fuel _ (conc_WF k terms nl s' H' Ht) nl (S nl) (eref x) c Hok Hf ltac:(lia)).
  symmetry. apply (semk_agree (to_snap s) (to_snap s') (live_ref s) eq_refl
                    (step_agree_nodes s _ s' _ H Hs) (step_agree_present s)), Hlive, Hin.
Qed.

Theorem goi_sem_bcdd : forall s tid lvl ch fr s' id c, CInv s -> terms_unique_b terms = true ->
  k = KBcdd ->
  step s (AGoi tid lvl ch fr) = Some (s', Some id) ->
  sem_edge (to_snap s') (mkEdge (RN id) false) c =
  match nth_error ch (c lvl) with
  | Some x => sem_edge (to_snap s) x c
  | None => None
  end.
Proof.
  intros s tid lvl ch fr s' id c H Ht K Hs.
  destruct (goi_facts s tid lvl ch fr s' id H Hs) as [H' [[nd [F [Hl Hc]]] Hlive]].
  assert (Hk : forall st e, sem_edge (to_snap st) e c =
            option_map (fun b : bool => if b then 1%N else 0%N) (semc (to_snap st) (S nl) e c)).
  { intros st e. unfold sem_edge. rewrite nlevels_to_snap. simpl s_kind. rewrite K. reflexivity. }
  rewrite Hk. rewrite (semc_S (to_snap s') nl (mkEdge (RN id) false) c id eq_refl), find_node_to_snap, F. simpl. rewrite Hl, Hc.
  destruct (nth_error ch (c lvl)) as [x|] eqn:Hx; [|reflexivity].
  assert (Hin : In x ch) by (eapply nth_error_In; eauto).
  destruct (child_fuel s' id nd x H' Ht F ltac:(rewrite Hc; exact Hin)) as [Hok [Hf _]].
  rewrite Hk.
  rewrite (semc_fuel _ (conc_WF k terms nl s' H' Ht) nl (S nl) x c Hok Hf ltac:(lia)).
  rewrite <- (semc_agree (to_snap s) (to_snap s') (live_ref s)
                (step_agree_nodes s _ s' _ H Hs) (step_agree_present s) _ x c (Hlive x Hin)).
  destruct (semc (to_snap s) (S nl) x c) as [[|]|]; reflexivity.
Qed.

(** ZBDD: all skipped levels above the node must be "variable false"; below the node the
    child is read from the level after [lvl] *)
Theorem goi_sem_zbdd : forall s tid lvl ch fr s' id c, CInv s -> terms_unique_b terms = true ->
  step s (AGoi tid lvl ch fr) = Some (s', Some id) ->
  semz (to_snap s') (S nl) 0 (RN id) c =
  if all_lo c 0 lvl then
    match nth_error ch (c lvl) with
    | Some x => semz (to_snap s) (S nl) (S lvl) (eref x) c
    | None => None
    end
  else Some false.
Proof.
  intros s tid lvl ch fr s' id c H Ht Hs.
  destruct (goi_facts s tid lvl ch fr s' id H Hs) as [H' [[nd [F [Hl Hc]]] Hlive]].
  rewrite semz_S, find_node_to_snap, F. simpl. rewrite Hl, Hc, Nat.sub_0_r.
  destruct (all_lo c 0 lvl); [|reflexivity].
  destruct (nth_error ch (c lvl)) as [x|] eqn:Hx; [|reflexivity].
  assert (Hin : In x ch) by (eapply nth_error_In; eauto).
  destruct (child_fuel s' id nd x H' Ht F ltac:(rewrite Hc; exact Hin)) as [Hok [Hf _]].
  rewrite (semz_fuel _ (conc_WF k terms nl s' H' Ht) nl (S nl) (S lvl) (eref x) c Hok Hf ltac:(lia)).
  symmetry. apply (semz_agree (to_snap s) (to_snap s') (live_ref s) eq_refl (nlevels_step s s')
                    (step_agree_nodes s _ s' _ H Hs) (step_agree_present s)), Hlive, Hin.
Qed.

End Sem.
