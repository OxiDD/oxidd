(** * C07 — every concurrent state is a well-formed snapshot with exact counts

    [to_snap] turns a state of the interleaving model into the snapshot type of
    DD/Table.v.  Under [CInv] the snapshot satisfies [WF] (C03) and [rc_exact_b]
    (C05) ([conc_wf]), so the canonicity theorems of DD/CanonAll.v (C01) apply to
    every state reachable under any schedule ([conc_canonical]).  Also: the
    executable checker [cinv_b] decides [CInv] ([cinv_b_spec]). *)

From Coq Require Import List NArith PArith Bool Arith Lia FMapPositive Permutation.
From OxiVerif Require Import Base.ListFacts DD.Table DD.TableExtra DD.TableProofs DD.CanonAll
  Mgr.Conc Mgr.ConcBase Mgr.ConcProofs.
Import ListNotations.

Arguments N.add : simpl never.
Arguments N.sub : simpl never.
Arguments N.mul : simpl never.

Section Snap.
Variable k : kind.
Variable terms : list (N * N).
Variable nl : nat.

Notation to_snap := (to_snap k terms nl).
Notation CInv := (CInv k terms nl).
Notation run := (run k terms nl).
Notation step := (step k terms nl).
Notation node_pre_b := (node_pre_b k terms nl).
Notation edge_ok_b := (edge_ok_b k terms).

(** what the canonicity theorems need to know about the static terminal table *)
Definition terms_ok : Prop :=
  terms_unique_b terms = true /\
  match k with
  | KBcdd => length terms <= 1
  | KZbdd => forall p, In p terms -> snd p = 0%N \/ snd p = 1%N
  | _ => True
  end.

Lemma find_to_map : forall t id, PositiveMap.find id (to_map t) = option_map to_node (cfind t id).
Proof.
  induction t as [|[i n] r IH]; intros id; simpl.
  - apply PositiveMap.gempty.
  - destruct (Pos.eqb_spec i id) as [->|Hne].
    + apply PositiveMap.gss.
    + rewrite PositiveMap.gso by congruence. apply IH.
Qed.

Lemma find_node_to_snap : forall s id,
  find_node (to_snap s) id = option_map to_node (cfind (cn s) id).
Proof. intros s id. unfold find_node. simpl. apply find_to_map. Qed.

Lemma find_node_to_snap_inv : forall s id nd, find_node (to_snap s) id = Some nd ->
  exists cnd, cfind (cn s) id = Some cnd /\ nd = to_node cnd.
Proof.
  intros s id nd H. rewrite find_node_to_snap in H.
  destruct (cfind (cn s) id) as [cnd|]; simpl in H; [|discriminate].
  exists cnd. split; [reflexivity | congruence].
Qed.

Lemma nlevels_to_snap : forall s, nlevels (to_snap s) = nl.
Proof. intros s. unfold nlevels. simpl. apply seq_length. Qed.

Lemma rlevel_to_snap : forall s r, rlevel (to_snap s) r = crlevel nl (cn s) r.
Proof.
  intros s [x|id]; simpl rlevel; [apply nlevels_to_snap|].
  rewrite find_node_to_snap. simpl. destruct (cfind (cn s) id); simpl; [reflexivity | apply nlevels_to_snap].
Qed.

Lemma ref_ok_b_to_snap : forall s r, ref_ok_b (to_snap s) r = cref_ok_b terms (cn s) r.
Proof.
  intros s [x|id]; simpl ref_ok_b; [reflexivity|].
  rewrite find_node_to_snap. simpl. destruct (cfind (cn s) id); reflexivity.
Qed.

Lemma reduced_b_to_snap : forall s ch, reduced_b (to_snap s) ch = creduced_b k terms ch.
Proof. intros s ch. unfold reduced_b, creduced_b. simpl. destruct k; reflexivity. Qed.

Lemma tags_ok_b_to_snap : forall s ch, tags_ok_b (to_snap s) ch = ctags_ok_b k ch.
Proof. reflexivity. Qed.

Lemma node_ok_b_to_snap : forall s nd,
  node_ok_b (to_snap s) (to_node nd) = node_pre_b (cn s) (cl nd) (cch nd).
Proof.
  intros s nd. unfold node_ok_b, Conc.node_pre_b. simpl nchildren. simpl nlevel. simpl nstored.
  rewrite Nat.eqb_refl, andb_true_r, nlevels_to_snap, reduced_b_to_snap, tags_ok_b_to_snap.
  f_equal. f_equal. f_equal. apply forallb_ext. intros e.
  rewrite ref_ok_b_to_snap, rlevel_to_snap. reflexivity.
Qed.

Lemma edge_ok_b_spec : forall s e, edge_ok_b (cn s) e = true ->
  ref_ok (to_snap s) (eref e) /\ (s_kind (to_snap s) <> KBcdd -> etag e = false).
Proof.
  intros s e H. unfold Conc.edge_ok_b in H. apply andb_true_iff in H. destruct H as [H1 H2].
  split.
  - apply ref_ok_b_spec. rewrite ref_ok_b_to_snap. exact H1.
  - simpl. intros Hk. destruct k; try congruence; apply negb_true_iff in H2; exact H2.
Qed.

(** the snapshot of a state that satisfies the invariant is well-formed (C03) *)
Theorem conc_WF : forall s, CInv s -> terms_unique_b terms = true -> WF (to_snap s).
Proof.
  intros s H Ht.
  assert (Hn : forall id nd, find_node (to_snap s) id = Some nd -> node_ok (to_snap s) nd).
  { intros id nd F. destruct (find_node_to_snap_inv s id nd F) as [cnd [Fc ->]].
    apply node_ok_b_spec. rewrite node_ok_b_to_snap.
    apply (ti_pre _ _ _ _ (ci_tbl _ _ _ s H) id cnd Fc). }
  constructor.
  - reflexivity.
  - intros i Hi. simpl in *. rewrite seq_length in Hi. exists i. split; apply nth_error_seq0; exact Hi.
  - intros i Hi. simpl in *. rewrite seq_length in Hi. exists i. split; apply nth_error_seq0; exact Hi.
  - intros id nd F. apply (Hn id nd F).
  - intros id nd F. apply (Hn id nd F).
  - intros id nd F. apply (Hn id nd F).
  - intros id nd e F. apply (Hn id nd F).
  - intros id nd F. apply (Hn id nd F).
  - intros Hk id nd e F. apply (Hn id nd F). exact Hk.
  - intros i1 i2 n1 n2 F1 F2 Hl Hc.
    destruct (find_node_to_snap_inv s i1 n1 F1) as [c1 [G1 ->]].
    destruct (find_node_to_snap_inv s i2 n2 F2) as [c2 [G2 ->]].
    apply (ti_uniq _ _ _ _ (ci_tbl _ _ _ s H) i1 i2 c1 c2 G1 G2 Hl Hc).
  - apply (proj1 (terms_unique_b_spec terms) Ht).
  - apply (proj1 (terms_unique_b_spec terms) Ht).
  - intros h Hh. simpl in Hh. apply in_map_iff in Hh. destruct Hh as [o [<- Ho]]. simpl snd.
    apply edge_ok_b_spec. apply (ci_own _ _ _ s H o Ho).
Qed.

(** ** the counts of the snapshot *)

Lemma refs_to_cnt : forall id l, refs_to id (map eref l) = cnt id l.
Proof.
  induction l as [|e r IH]; simpl; [reflexivity|].
  unfold refs_to in *. simpl. unfold points_to.
  destruct (ref_eq_dec (eref e) (RN id)) as [E|Hne].
  - rewrite E, Pos.eqb_refl, IH. reflexivity.
  - rewrite IH. destruct (eref e) as [x|j]; [reflexivity|].
    destruct (Pos.eqb_spec j id) as [->|_]; [congruence | reflexivity].
Qed.

Definition conv_entry (p : positive * cnode) : positive * node := (fst p, to_node (snd p)).

Lemma elements_to_map_perm : forall t, NoDup (map fst t) ->
  Permutation (PositiveMap.elements (to_map t)) (map conv_entry t).
Proof.
  intros t Hnd. apply NoDup_Permutation.
  - apply NoDup_map_inv with (f := fst). apply elements_keys_nodup.
  - apply NoDup_map_inv with (f := fst). rewrite map_map. simpl. exact Hnd.
  - intros [id nd]. split.
    + intros Hin. apply PositiveMap.elements_complete in Hin. rewrite find_to_map in Hin.
      destruct (cfind t id) as [cnd|] eqn:F; simpl in Hin; [|discriminate]. inversion Hin; subst.
      apply in_map_iff. exists (id, cnd). split; [reflexivity | apply cfind_In; exact F].
    + intros Hin. apply in_map_iff in Hin. destruct Hin as [[i cnd] [E Hin]].
      unfold conv_entry in E. simpl in E. inversion E; subst.
      apply PositiveMap.elements_correct. rewrite find_to_map, (In_cfind t id cnd Hnd Hin). reflexivity.
Qed.

Lemma refs_to_children_list : forall id t,
  refs_to id (flat_map (fun p : positive * node => map eref (nchildren (snd p))) (map conv_entry t)) =
  parents t id.
Proof.
  induction t as [|[i n] r IH]; simpl; [reflexivity|].
  rewrite refs_to_app, IH, refs_to_cnt. reflexivity.
Qed.

Lemma refs_to_child_refs : forall s id, NoDup (map fst (cn s)) ->
  refs_to id (child_refs (to_snap s)) = parents (cn s) id.
Proof.
  intros s id Hnd. unfold child_refs. simpl s_nodes.
  rewrite <- refs_to_children_list. unfold refs_to.
  apply Permutation_count_occ. apply Permutation_flat_map. apply elements_to_map_perm. exact Hnd.
Qed.

Lemma refs_to_handle_refs : forall s id, refs_to id (handle_refs (to_snap s)) = owners (cown s) id.
Proof.
  intros s id. unfold handle_refs, owners. simpl s_handles. rewrite map_map. simpl.
  rewrite <- refs_to_cnt, map_map. reflexivity.
Qed.

(** the reference counts of the snapshot are exact in the sense of C05 (no extra
    manager-internal owners) *)
Theorem conc_rc_exact : forall s, CInv s -> rc_exact_b (to_snap s) [] = true.
Proof.
  intros s H. apply rc_exact_b_spec. intros id nd F.
  destruct (find_node_to_snap_inv s id nd F) as [cnd [Fc ->]]. simpl nrc.
  rewrite (ci_rc _ _ _ s H id cnd Fc), refs_to_handle_refs,
    (refs_to_child_refs s id (ti_nodup _ _ _ _ (ci_tbl _ _ _ s H))).
  simpl. unfold refs_to. simpl. f_equal. lia.
Qed.

Theorem conc_wf : forall s, CInv s -> terms_unique_b terms = true ->
  WF (to_snap s) /\ rc_exact_b (to_snap s) [] = true.
Proof. intros s H Ht. split; [apply conc_WF; assumption | apply conc_rc_exact; assumption]. Qed.

(** the same through the executable checkers that the driver runs on real snapshots *)
Corollary conc_wf_b : forall s, CInv s -> terms_unique_b terms = true ->
  wf_b (to_snap s) = true /\ rc_exact_b (to_snap s) [] = true.
Proof.
  intros s H Ht. split; [apply wf_b_spec; apply conc_WF; assumption | apply conc_rc_exact; assumption].
Qed.

Lemma terms_kind_to_snap : forall s, terms_ok -> terms_kind (to_snap s).
Proof. intros s [_ H]. unfold terms_kind. simpl. destruct k; exact H. Qed.

(** ** canonicity in every concurrent state *)

(** any two valid edge values with the same denotation are the same edge *)
Theorem conc_canonical_edges : forall s, CInv s -> terms_ok ->
  forall e1 e2, edge_ok_b (cn s) e1 = true -> edge_ok_b (cn s) e2 = true ->
  (forall c, (forall l, c l < arity k) -> sem_edge (to_snap s) e1 c = sem_edge (to_snap s) e2 c) ->
  e1 = e2.
Proof.
  intros s H Ht e1 e2 O1 O2 Hsem.
  destruct (edge_ok_b_spec s e1 O1) as [R1 T1]. destruct (edge_ok_b_spec s e2 O2) as [R2 T2].
  assert (Hfull : WFfull (to_snap s)).
  { split; [apply conc_WF; [exact H | apply Ht] | apply terms_kind_to_snap; exact Ht]. }
  apply (proj2 (canon_edges (to_snap s) Hfull e1 e2 R1 R2 (fun Hk => conj (T1 Hk) (T2 Hk)))).
  intros c Hc. apply Hsem. exact Hc.
Qed.

(** two owned edges (of any two threads) with the same denotation are equal *)
Theorem conc_canonical_inv : forall s, CInv s -> terms_ok ->
  forall t1 t2 e1 e2, In (t1, e1) (cown s) -> In (t2, e2) (cown s) ->
  (forall c, (forall l, c l < arity k) -> sem_edge (to_snap s) e1 c = sem_edge (to_snap s) e2 c) ->
  e1 = e2.
Proof.
  intros s H Ht t1 t2 e1 e2 H1 H2. apply conc_canonical_edges; auto.
  - apply (ci_own _ _ _ s H (t1, e1) H1).
  - apply (ci_own _ _ _ s H (t2, e2) H2).
Qed.

(** ... in every state reachable by any schedule from the empty manager *)
Theorem conc_canonical : forall sched s, terms_ok -> run cempty sched = Some s ->
  WF (to_snap s) /\ rc_exact_b (to_snap s) [] = true /\
  forall t1 t2 e1 e2, In (t1, e1) (cown s) -> In (t2, e2) (cown s) ->
  (forall c, (forall l, c l < arity k) -> sem_edge (to_snap s) e1 c = sem_edge (to_snap s) e2 c) ->
  e1 = e2.
Proof.
  intros sched s Ht Hr. pose proof (reachable_inv k terms nl sched s Hr) as H.
  split; [apply conc_WF; [exact H | apply Ht]|]. split; [apply conc_rc_exact; exact H|].
  apply conc_canonical_inv; assumption.
Qed.

(** owned edges always have a denotation (the interpreters do not run out of fuel and
    meet no dangling reference) *)
Theorem conc_sem_total : forall s, CInv s -> terms_unique_b terms = true ->
  forall tid e c, In (tid, e) (cown s) -> (forall l, c l < arity k) ->
  exists v, sem_edge (to_snap s) e c = Some v.
Proof.
  intros s H Ht tid e c Hin Hc.
  apply (sem_total (to_snap s) (conc_WF s H Ht)).
  - apply (edge_ok_b_spec s e (ci_own _ _ _ s H (tid, e) Hin)).
  - exact Hc.
Qed.

(** ** [cinv_b] decides [CInv] *)

Lemma keys_nodup_b_spec : forall t, keys_nodup_b t = true <-> NoDup (map fst t).
Proof.
  induction t as [|[i n] r IH]; simpl.
  - split; [constructor | reflexivity].
  - rewrite andb_true_iff, negb_true_iff, <- not_true_iff_false, existsb_exists, IH. split.
    + intros [H1 H2]. constructor; [|exact H2]. intros Hin. apply H1.
      apply in_map_iff in Hin. destruct Hin as [p [Hp1 Hp2]].
      exists p. split; [exact Hp2 | apply Pos.eqb_eq; exact Hp1].
    + intros H. inversion H as [|? ? Hi Hr]; subst. split; [|exact Hr].
      intros [p [Hp1 Hp2]]. apply Pos.eqb_eq in Hp2. apply Hi. rewrite <- Hp2. apply in_map. exact Hp1.
Qed.

Lemma shapes_unique_b_spec : forall t, NoDup (map fst t) ->
  (shapes_unique_b t = true <->
   forall i1 i2 n1 n2, In (i1, n1) t -> In (i2, n2) t -> cl n1 = cl n2 -> cch n1 = cch n2 -> i1 = i2).
Proof.
  induction t as [|[i n] r IH]; intros Hnd; simpl.
  - split; [intros _ i1 i2 n1 n2 [] | reflexivity].
  - inversion Hnd as [|? ? Hi Hr]; subst.
    rewrite andb_true_iff, negb_true_iff, <- not_true_iff_false, existsb_exists, (IH Hr).
    assert (Hex : (exists p, In p r /\ Nat.eqb (cl (snd p)) (cl n) && edges_eqb (cch (snd p)) (cch n) = true) <->
                  exists j m, In (j, m) r /\ cl m = cl n /\ cch m = cch n).
    { split.
      - intros [[j m] [Hin E]]. simpl in E. apply andb_true_iff in E. destruct E as [E1 E2].
        apply Nat.eqb_eq in E1. apply edges_eqb_eq in E2. exists j, m. auto.
      - intros [j [m [Hin [H1 H2]]]]. exists (j, m). split; [exact Hin|]. simpl.
        apply andb_true_iff. split; [apply Nat.eqb_eq; exact H1 | apply edges_eqb_eq; exact H2]. }
    rewrite Hex. split.
    + intros [H1 H2] i1 i2 n1 n2 [E1|I1] [E2|I2] Hl Hc.
      * congruence.
      * inversion E1; subst. exfalso. apply H1. exists i2, n2. auto.
      * inversion E2; subst. exfalso. apply H1. exists i1, n1. auto.
      * apply (H2 i1 i2 n1 n2 I1 I2 Hl Hc).
    + intros H. split.
      * intros [j [m [Hin [H1 H2]]]]. apply Hi.
        rewrite (H i j n m (or_introl eq_refl) (or_intror Hin) (eq_sym H1) (eq_sym H2)).
        apply (in_map fst) in Hin. exact Hin.
      * intros i1 i2 n1 n2 I1 I2. apply H; right; assumption.
Qed.

Theorem cinv_b_spec : forall s, cinv_b k terms nl s = true <-> CInv s.
Proof.
  intros s. unfold cinv_b. rewrite !andb_true_iff, keys_nodup_b_spec, !forallb_forall.
  split.
  - intros [[[[H1 H2] H3] H4] H5]. constructor; [constructor|idtac|idtac].
    + exact H1.
    + intros id nd F. apply (H2 (id, nd)). apply cfind_In. exact F.
    + intros i1 i2 n1 n2 F1 F2. apply (proj1 (shapes_unique_b_spec (cn s) H1) H3);
        apply cfind_In; assumption.
    + exact H4.
    + intros id nd F. specialize (H5 (id, nd) (cfind_In _ _ _ F)). simpl in H5.
      apply N.eqb_eq in H5. exact H5.
  - intros [[H1 H2 H3] H4 H5]. repeat split.
    + exact H1.
    + intros [id nd] Hin. simpl. apply (H2 id nd). apply In_cfind; assumption.
    + apply (shapes_unique_b_spec (cn s) H1). intros i1 i2 n1 n2 I1 I2.
      apply (H3 i1 i2 n1 n2); apply In_cfind; assumption.
    + exact H4.
    + intros [id nd] Hin. simpl. apply N.eqb_eq. apply (H5 id nd). apply In_cfind; assumption.
Qed.

End Snap.
