(** * C07t — the log-level replay of the terminal manager (Mgr/ConcTermLog.v):
      it accepts the log of every behaviour of the interleaving model Mgr/ConcTerm.v, keeps the
      table's invariant, and a replayed table that matches a snapshot makes up, together with the
      snapshot's counted edges, a state of the full model that satisfies its invariant *)

From Coq Require Import List NArith Bool Arith Lia.
From OxiVerif Require Import Mgr.ConcTerm Mgr.ConcTermProofs Mgr.ConcTermLog.
Import ListNotations.

Arguments N.add : simpl never.
Arguments N.sub : simpl never.
Arguments N.mul : simpl never.

(** ** small facts *)

Lemma yowes_nil : forall t, yowes [] t = false.
Proof. reflexivity. Qed.

(** the increments a hit owes, one after the other *)
Lemma yrun_retains : forall tid vals tt fr ph own,
  (forall x, In x vals -> stored_b tt x = true) ->
  yrun (mkY tt fr ph (map (fun x => (tid, x)) vals)) (map (YRetain tid) vals) =
  Some (mkY (fst (retain_vals tid vals tt own)) fr ph []).
Proof.
  induction vals as [|x r IH]; intros tt fr ph own ST.
  - reflexivity.
  - cbn [map yrun]. unfold ystep. cbn [y_pend y_tt y_free y_ph].
    assert (O : yowes ((tid, x) :: map (fun x0 => (tid, x0)) r) tid = true).
    { unfold yowes. cbn. rewrite Nat.eqb_refl. reflexivity. }
    rewrite O. cbn [ytake_pend fst snd]. rewrite Nat.eqb_refl, N.eqb_refl.
    rewrite (ST x (or_introl eq_refl)).
    cbn [retain_vals]. apply IH.
    intros y I. rewrite stored_tupd. apply ST. right. assumption.
Qed.

(** ** the replay accepts the log of every action of the full model *)

Theorem ysim : forall s a s' r, XInv s -> xstep false s a = Some (s', r) ->
  yrun (yproj s) (xlabs s a r) = Some (yproj s').
Proof.
  intros s a s' r I H.
  (* of a move and of the actions on a bucket the replay sees nothing *)
  destruct (xstep_spec _ _ _ _ _ H); try discriminate L; try discriminate C; clear H; try reflexivity.
  - (* XGet, found *)
    cbn [xlabs]. rewrite FV. cbn [yrun]. unfold ystep, yproj. cbn.
    rewrite FV, N.eqb_refl. cbn. rewrite Nat.eqb_refl, N.eqb_refl.
    destruct (tfind_val_stored _ _ _ (xi_ids _ I) FV) as (nd & F & _).
    unfold stored_b. rewrite F. reflexivity.
  - (* XGet, out of memory *)
    cbn [xlabs yrun]. unfold ystep, yproj. cbn. rewrite FV, FR. reflexivity.
  - (* XGet, new *)
    cbn [xlabs]. rewrite FV. cbn [yrun]. unfold ystep, yproj. cbn.
    rewrite FV, FR, N.eqb_refl. reflexivity.
  - (* XRetain *)
    cbn [xlabs yrun]. unfold ystep, yproj. cbn. unfold ycount.
    apply owned_b_in in OB. destruct OB as (o & Io & <-).
    destruct (owned_live _ _ I Io) as (nd & F & L). apply N.ltb_lt in L. rewrite F, L. reflexivity.
  - (* XDrop *)
    cbn [xlabs yrun]. unfold ystep, yproj. cbn. unfold ycount.
    destruct (owned_live _ _ I (take_tok_has _ _ _ TT)) as (nd & F & L). cbn in F.
    apply N.ltb_lt in L. rewrite F, L. reflexivity.
  - (* XLookup, hit *)
    assert (ST : forall x, In x (te_vals e) -> stored_b (ct_tt s) x = true).
    { intros x Ix. eapply (xi_cache _ I); eauto. unfold te_ids. apply in_or_app. right. assumption. }
    cbn [xlabs yrun]. unfold ystep at 1. unfold yproj. cbn.
    assert (FA : forallb (stored_b (ct_tt s)) (te_vals e) = true) by (apply forallb_forall; assumption).
    rewrite FA. unfold ywith_pend. cbn.
    rewrite (yrun_retains tid (te_vals e) (ct_tt s) (ct_free s) (ct_ph s) (ct_own s) ST).
    rewrite RV. reflexivity.
  - (* XGcBegin *) cbn [xlabs yrun]. unfold ystep, yproj. cbn. rewrite PH. reflexivity.
  - (* XGcLockBucket *) cbn. unfold yproj. cbn. rewrite PH. reflexivity.
  - (* XGcSweepBegin *) cbn [xlabs yrun]. unfold ystep, yproj. cbn. rewrite PH. reflexivity.
  - (* XGcTerm, freed *)
    apply tphase_eqb_eq in PH. simpl in PH. cbn [xlabs yrun]. unfold ystep, yproj. cbn. rewrite PH. cbn. unfold ycount. rewrite F, Z. reflexivity.
  - (* XGcTerm, kept *) apply tphase_eqb_eq in PH. simpl in PH. cbn [xlabs yrun]. unfold ystep, yproj. cbn. rewrite PH. reflexivity.
  - (* XGcSweepDone *) cbn [xlabs yrun]. unfold ystep, yproj. cbn. rewrite PH. reflexivity.
  - (* XGcUnlockBucket *) cbn. unfold yproj. cbn. rewrite PH. reflexivity.
  - (* XGcEnd *) cbn [xlabs yrun]. unfold ystep, yproj. cbn. rewrite PH. reflexivity.
Qed.

Lemma yrun_app : forall l1 l2 y, yrun y (l1 ++ l2) =
  match yrun y l1 with Some y' => yrun y' l2 | None => None end.
Proof.
  induction l1 as [|a r IH]; intros l2 y; simpl; [reflexivity|].
  destruct (ystep y a); [apply IH|reflexivity].
Qed.

(** ... and of every schedule: the log of a behaviour of the model is accepted and leads to the
    projection of the state the model reaches *)
Theorem ytrace_sim : forall sched s s' log, XInv s -> xtrace s sched = Some (s', log) ->
  yrun (yproj s) log = Some (yproj s').
Proof.
  induction sched as [|a r IH]; intros s s' log I H; simpl in H.
  - inversion H; subst. reflexivity.
  - destruct (xstep false s a) as [[s1 res]|] eqn:ST; [|discriminate].
    destruct (xtrace s1 r) as [[s2 log2]|] eqn:TR; [|discriminate]. inversion H; subst.
    rewrite yrun_app. rewrite (ysim _ _ _ _ I ST).
    eapply IH; eauto. eapply xstep_inv; eauto.
Qed.

Lemma nseq_seq : forall n k, nseq n (N.of_nat k) = map N.of_nat (seq k n).
Proof.
  induction n as [|n IH]; intros k; simpl; [reflexivity|].
  rewrite <- Nat2N.inj_succ. rewrite IH. reflexivity.
Qed.

Lemma yinit_proj : forall cap nb, yinit cap = yproj (ctinit cap nb).
Proof.
  intros cap nb. unfold yinit, yproj, ctinit. cbn. change 0%N with (N.of_nat 0).
  rewrite nseq_seq. reflexivity.
Qed.

(** the log of a schedule exists whenever the schedule runs *)
Lemma xtrace_of_run : forall sched s s', xrun false s sched = Some s' ->
  exists log, xtrace s sched = Some (s', log).
Proof.
  induction sched as [|a r IH]; intros s s' H; simpl in *.
  - inversion H; subst. eauto.
  - destruct (xstep false s a) as [[s1 res]|]; [|discriminate].
    destruct (IH _ _ H) as (log & E). rewrite E. eauto.
Qed.

Theorem yreachable_accepted : forall cap nb sched s',
  xrun false (ctinit cap nb) sched = Some s' ->
  exists log, xtrace (ctinit cap nb) sched = Some (s', log) /\
              yrun (yinit cap) log = Some (yproj s').
Proof.
  intros cap nb sched s' H. destruct (xtrace_of_run _ _ _ H) as (log & E).
  exists log. split; [assumption|].
  rewrite (yinit_proj cap nb).
  eapply ytrace_sim; eauto. apply ctinit_inv.
Qed.

(** ** what the replay accepts *)

Record YInv (y : yst) : Prop := mkYInv {
  yi_ids : NoDup (map fst (y_tt y));
  yi_vals : NoDup (map tvalf (y_tt y));
  yi_free : NoDup (y_free y);
  yi_disj : forall x, In x (y_free y) -> tfind (y_tt y) x = None }.

Lemma YInv_def : forall y, YInv y <->
  NoDup (map fst (y_tt y)) /\ NoDup (map tvalf (y_tt y)) /\ NoDup (y_free y) /\
  (forall x, In x (y_free y) -> tfind (y_tt y) x = None).
Proof.
  intros y; split.
  - intros [A B C D]. auto.
  - intros (A & B & C & D). constructor; assumption.
Qed.

Lemma yinit_inv : forall cap, YInv (yinit cap).
Proof. intros cap. rewrite (yinit_proj cap 0). apply YInv_def, xinv_tab, ctinit_inv. Qed.

(** [YInv] does not look at the phase and the owed increments; the table and the free chain
    change as in the full model *)
Theorem ystep_inv : forall y l y', YInv y -> ystep y l = Some y' -> YInv y'.
Proof.
  intros y l y' I H. apply YInv_def. apply YInv_def in I.
  change (TabOk (y_tt y') (y_free y')). change (TabOk (y_tt y) (y_free y)) in I.
  destruct l; cbn [ystep] in H; unfold ycount in H.
  2: { (* `new`: the head of the free chain is written *)
    destruct (yowes (y_pend y) t); [discriminate|].
    destruct (tfind_val (y_tt y) v) eqn:FV; [discriminate|].
    destruct (y_free y) as [|x' fr] eqn:FR; [discriminate|].
    destruct (N.eqb_spec x' x); inv_some. apply tabok_new; assumption. }
  all: step_cases H; injection H as <-; cbn [y_tt y_free ywith_pend ywith_tt ywith_ph]; try assumption.
  - (* `oom`: accepted with an empty free chain, nothing changes *) congruence.
  - apply tabok_tupd, I.
  - apply tabok_tupd, I.
  - apply tabok_tupd, I.
  - destruct (tfind (y_tt y) x) eqn:F; [eapply tabok_remove; eauto | congruence].
Qed.

Theorem yrun_inv : forall log y y', YInv y -> yrun y log = Some y' -> YInv y'.
Proof.
  induction log as [|l r IH]; intros y y' I H; simpl in H.
  - inversion H; subst. assumption.
  - destruct (ystep y l) as [y0|] eqn:S; [|discriminate].
    apply (IH y0 y'); [eapply ystep_inv; eauto|assumption].
Qed.

Theorem yrun_init_inv : forall log cap y, yrun (yinit cap) log = Some y -> YInv y.
Proof. intros log cap y H. eapply yrun_inv; [apply yinit_inv|exact H]. Qed.

(** the executable form *)
Theorem yinv_b_spec : forall y, yinv_b y = true <-> YInv y.
Proof.
  intros y. unfold yinv_b. rewrite !andb_true_iff, !nodup_b_iff, forallb_forall. split.
  - intros [[[A B] C] D]. constructor; auto.
    intros x Ix. apply stored_b_false. apply negb_true_iff. auto.
  - intros [A B C D]. repeat split; auto.
    intros x Ix. apply negb_true_iff. apply stored_b_false. auto.
Qed.

(** the decisions the replay takes, label by label *)

(** a removal is accepted only in the sweep phase, for a stored terminal without counted edge;
    afterwards the terminal is gone and its slot heads the free chain *)
Theorem yfree_spec : forall y x y', YInv y -> ystep y (YFree x) = Some y' ->
  y_ph y = PSweep /\ (exists nd, tfind (y_tt y) x = Some nd /\ tn_rc nd = 0%N) /\
  tfind (y_tt y') x = None /\ y_free y' = x :: y_free y.
Proof.
  intros y x y' I H. cbn [ystep] in H.
  destruct (y_ph y) eqn:PH; try discriminate.
  unfold ycount in H. destruct (tfind (y_tt y) x) as [nd|] eqn:F; [|discriminate].
  destruct (N.eqb_spec (tn_rc nd) 0); inv_some. cbn.
  repeat split; eauto. rewrite tfind_tremove by apply (yi_ids _ I). rewrite N.eqb_refl. reflexivity.
Qed.

Theorem yscan_spec : forall y y', ystep y YScan = Some y' -> y_ph y = PSweep /\ y' = y.
Proof.
  intros y y' H. cbn in H. destruct (y_ph y); try discriminate. inv_some. auto.
Qed.

(** `found`: the value is stored under exactly this id *)
Theorem yfound_spec : forall y t v x y', YInv y -> ystep y (YFound t v x) = Some y' ->
  exists nd, tfind (y_tt y) x = Some nd /\ tn_val nd = v.
Proof.
  intros y t v x y' I H. cbn [ystep] in H.
  destruct (yowes (y_pend y) t); [discriminate|].
  destruct (tfind_val (y_tt y) v) as [x'|] eqn:FV; [|discriminate].
  destruct (N.eqb_spec x' x); [|discriminate]. subst.
  eapply tfind_val_stored; eauto. apply (yi_ids _ I).
Qed.

(** `new`: the value is not stored, the id is the head of the free chain and not in use *)
Theorem ynew_spec : forall y t v x y', YInv y -> ystep y (YNew t v x) = Some y' ->
  ~ In v (map tvalf (y_tt y)) /\ tfind (y_tt y) x = None /\
  (exists fr, y_free y = x :: fr /\ y_free y' = fr) /\
  tfind (y_tt y') x = Some (mkTN v 1).
Proof.
  intros y t v x y' I H. cbn [ystep] in H.
  destruct (yowes (y_pend y) t); [discriminate|].
  destruct (tfind_val (y_tt y) v) eqn:FV; [discriminate|].
  destruct (y_free y) as [|x' fr] eqn:FR; [discriminate|].
  destruct (N.eqb_spec x' x); inv_some. cbn. rewrite N.eqb_refl.
  repeat split; eauto.
  - apply tfind_val_none. assumption.
  - apply (yi_disj _ I). rewrite FR. left. reflexivity.
Qed.

(** an increment / a decrement is accepted only on a stored terminal; a decrement and an
    increment that no `found` / hit / iterator item announced need a counted edge *)
Theorem yretain_spec : forall y t x y', ystep y (YRetain t x) = Some y' ->
  exists nd, tfind (y_tt y) x = Some nd /\
             (yowes (y_pend y) t = false -> (0 < tn_rc nd)%N) /\
             tfind (y_tt y') x = Some (mkTN (tn_val nd) (N.succ (tn_rc nd))).
Proof.
  intros y t x y' H. cbn [ystep] in H. destruct (yowes (y_pend y) t).
  - destruct (ytake_pend t x (y_pend y)); [|discriminate].
    destruct (stored_b (y_tt y) x) eqn:ST; inv_some.
    apply stored_b_true in ST. destruct ST as (nd & F). exists nd. cbn.
    split; [assumption|]. split; [discriminate|]. rewrite tfind_tupd, N.eqb_refl, F. reflexivity.
  - unfold ycount in H. destruct (tfind (y_tt y) x) as [nd|] eqn:F; [|discriminate].
    destruct (N.ltb_spec 0 (tn_rc nd)); inv_some. exists nd. cbn.
    split; [reflexivity|]. split; [auto|]. rewrite tfind_tupd, N.eqb_refl, F. reflexivity.
Qed.

Theorem yrelease_spec : forall y t x y', ystep y (YRelease t x) = Some y' ->
  exists nd, tfind (y_tt y) x = Some nd /\ (0 < tn_rc nd)%N /\
             tfind (y_tt y') x = Some (mkTN (tn_val nd) (N.pred (tn_rc nd))).
Proof.
  intros y t x y' H. cbn [ystep] in H. destruct (yowes (y_pend y) t); [discriminate|].
  unfold ycount in H. destruct (tfind (y_tt y) x) as [nd|] eqn:F; [|discriminate].
  destruct (N.ltb_spec 0 (tn_rc nd)); inv_some. exists nd. cbn.
  split; [reflexivity|]. split; [assumption|]. rewrite tfind_tupd, N.eqb_refl, F. reflexivity.
Qed.

(** ** the comparison with the snapshot after a block *)

(** the check accepts every state of the model, with the model's own tokens as counted edges *)
Theorem ymatch_proj : forall s, XInv s -> ymatch_b (yproj s) (map fst (ct_tt s)) (ct_own s) = true.
Proof.
  intros s I. unfold ymatch_b, yproj. cbn. rewrite !andb_true_iff. repeat split.
  - apply forallb_forall. intros x Ix. apply in_map_iff in Ix. destruct Ix as ([i nd] & E & Ip).
    cbn in E. subst. apply stored_b_true. exists nd. apply in_tfind; [apply (xi_ids _ I)|assumption].
  - apply forallb_forall. intros p Ip. apply existsb_exists. exists (fst p).
    split; [apply in_map; assumption|apply N.eqb_refl].
  - apply forallb_forall. intros o Io. apply (xi_own _ I). assumption.
  - apply forallb_forall. intros [i nd] Ip. cbn. apply Nat.eqb_eq.
    apply (xi_rc _ I). apply in_tfind; [apply (xi_ids _ I)|assumption].
Qed.

(** a replayed state that passes the comparison: its table, with the counted edges the snapshot
    shows as tokens, an empty cache and no collection running, is a state of the full model that
    satisfies the invariant XInv (exact counts, no dangling counted edge, hash consing) *)
Theorem ymatch_lift : forall y ids refs nb, YInv y -> ymatch_b y ids refs = true ->
  XInv (ylift y refs nb) /\
  (forall x, In x ids <-> exists nd, tfind (y_tt y) x = Some nd) /\ y_pend y = [].
Proof.
  intros y ids refs nb [A B C D] M. unfold ymatch_b in M. rewrite !andb_true_iff in M.
  destruct M as [[[[M1 M2] M3] M4] M5].
  rewrite forallb_forall in M1, M2, M3, M4.
  split; [|split].
  - constructor; cbn; auto.
    + intros x nd F. apply tfind_in in F. apply M4 in F. cbn in F. apply Nat.eqb_eq in F. assumption.
    + intros b bk e x NB. apply nth_error_In in NB. apply repeat_spec in NB. subst. discriminate.
    + intros b bk _ CL. discriminate.
  - intros x. split.
    + intros Ix. apply stored_b_true. auto.
    + intros (nd & F). apply tfind_in in F. apply M2 in F. apply existsb_exists in F.
      destruct F as (z & Iz & Ez). cbn in Ez. apply N.eqb_eq in Ez. subst. assumption.
  - destruct (y_pend y); [reflexivity|discriminate].
Qed.

(** ** examples: a protocol-conforming log is accepted (non-vacuity of the hypotheses above),
       the late terminal collection and a removal of a counted terminal are refused *)

(** `get_terminal 7` (new, slot 0), `get_terminal 9` (new, slot 1), `get_terminal 7` again (found),
    clone and drop, a cache hit handing out terminal 1, drops, a collection that scans and frees
    slot 1 in the sweep, `get_terminal 5` reuses it *)
Definition ylog_ok : list ylab :=
  [ YNew 0 7 0; YNew 1 9 1; YFound 1 7 0; YRetain 1 0; YRetain 0 0; YRelease 0 0; YIter 2 1; YRetain 2 1;
    YHitVals 0 [1%N]; YRetain 0 1; YRelease 2 1; YRelease 0 1; YRelease 1 1;
    YPreGc; YSweep; YScan; YFree 1; YPostGc; YGcEnd; YNew 2 5 1; YOom 0 11 ].

Example ylog_ok_accepted :
  yrun (yinit 2) ylog_ok =
  Some (mkY [(1%N, mkTN 5 1); (0%N, mkTN 7 2)] [] PIdle []).
Proof. vm_compute. reflexivity. Qed.

Example ylog_ok_state_inv : forall y, yrun (yinit 2) ylog_ok = Some y ->
  YInv y /\ ymatch_b y [0%N; 1%N] [(0, 0%N); (1, 0%N); (2, 1%N)] = true.
Proof.
  intros y H. split.
  - eapply yrun_inv; [apply yinit_inv|exact H].
  - rewrite ylog_ok_accepted in H. inversion H; subst. vm_compute. reflexivity.
Qed.

(** the log of seeded change C07e (terminal collection after `post_gc` began): refused at the scan
    resp. at the removal; a removal of a terminal with a counted edge, a `found` of a collected
    slot, a new id that is in use, an increment nobody announced on an unreferenced terminal and
    an announced increment that does not come are refused as well *)
Example ylog_late_refused :
  yrun (yinit 2) [YNew 0 7 0; YRelease 0 0; YPreGc; YSweep; YPostGc; YScan] = None /\
  yrun (yinit 2) [YNew 0 7 0; YRelease 0 0; YPreGc; YSweep; YPostGc; YFree 0] = None /\
  yrun (yinit 2) [YNew 0 7 0; YPreGc; YSweep; YFree 0] = None /\
  yrun (yinit 2) [YNew 0 7 0; YRelease 0 0; YPreGc; YSweep; YFree 0; YFound 1 7 0] = None /\
  yrun (yinit 2) [YNew 0 7 0; YNew 1 9 0] = None /\
  yrun (yinit 2) [YNew 0 7 0; YNew 1 7 1] = None /\
  yrun (yinit 2) [YNew 0 7 0; YRelease 0 0; YRetain 1 0] = None /\
  yrun (yinit 2) [YNew 0 7 0; YRelease 0 0; YRelease 1 0] = None /\
  yrun (yinit 2) [YNew 0 7 0; YIter 1 0; YRelease 1 0] = None.
Proof. vm_compute. repeat split. Qed.
