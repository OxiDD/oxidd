(** * C07 — terminals, apply cache and collector: the invariant and its preservation
    (model: Mgr/ConcTerm.v) *)

From Coq Require Import List NArith Bool Arith Lia.
From OxiVerif Require Import Mgr.ConcTerm.
From OxiVerif Require Export Mgr.StepCases.
Import ListNotations.

Arguments N.add : simpl never.
Arguments N.sub : simpl never.
Arguments N.mul : simpl never.

(** ** the invariant *)

Definition tvalf (p : N * tnode) : N := tn_val (snd p).

Record XInv (s : cts) : Prop := mkXInv {
  xi_ids : NoDup (map fst (ct_tt s));
  xi_vals : NoDup (map tvalf (ct_tt s));
  xi_free : NoDup (ct_free s);
  xi_free_disj : forall x, In x (ct_free s) -> tfind (ct_tt s) x = None;
  xi_rc : forall x nd, tfind (ct_tt s) x = Some nd -> N.to_nat (tn_rc nd) = xowners (ct_own s) x;
  xi_own : forall o, In o (ct_own s) -> stored_b (ct_tt s) (snd o) = true;
  xi_cache : forall b bk e x, nth_error (ct_b s) b = Some bk -> tb_ent bk = Some e ->
             In x (te_ids e) -> stored_b (ct_tt s) x = true;
  xi_claim : forall b bk, nth_error (ct_b s) b = Some bk -> claimed_b (ct_ph s) (ct_next s) b = true ->
             tb_ent bk = None /\ tb_lock bk = LCollector }.

(** ** association-list lemmas *)

Lemma tfind_in : forall t x nd, tfind t x = Some nd -> In (x, nd) t.
Proof.
  induction t as [|[i n] r IH]; simpl; intros x nd H; [discriminate|].
  destruct (N.eqb_spec i x).
  - inversion H; subst; auto.
  - right; auto.
Qed.

Lemma tfind_none_iff : forall t x, tfind t x = None <-> ~ In x (map fst t).
Proof.
  induction t as [|[i n] r IH]; simpl; intros x; [tauto|].
  destruct (N.eqb_spec i x); [split; [discriminate|tauto]|].
  rewrite IH. tauto.
Qed.

Lemma in_tfind : forall t x nd, NoDup (map fst t) -> In (x, nd) t -> tfind t x = Some nd.
Proof.
  induction t as [|[i n] r IH]; simpl; intros x nd ND H; [tauto|].
  inversion ND as [|? ? NI ND']; subst.
  destruct H as [H|H].
  - inversion H; subst. rewrite N.eqb_refl. reflexivity.
  - destruct (N.eqb_spec i x).
    + subst. exfalso. apply NI. change x with (fst (x, nd)). apply in_map; auto.
    + auto.
Qed.

Lemma stored_b_true : forall t x, stored_b t x = true <-> exists nd, tfind t x = Some nd.
Proof.
  unfold stored_b; intros t x; destruct (tfind t x); split; intros H;
    [eauto | reflexivity | discriminate | destruct H; discriminate].
Qed.

Lemma stored_b_false : forall t x, stored_b t x = false <-> tfind t x = None.
Proof.
  unfold stored_b; intros t x; destruct (tfind t x); split; intros H; auto; discriminate.
Qed.

Lemma tupd_fst : forall f x t, map fst (tupd f x t) = map fst t.
Proof.
  induction t as [|[i n] r IH]; simpl; [reflexivity|].
  destruct (N.eqb i x); simpl; congruence.
Qed.

Lemma tupd_vals : forall f x t, map tvalf (tupd f x t) = map tvalf t.
Proof.
  induction t as [|[i n] r IH]; simpl; [reflexivity|].
  destruct (N.eqb i x); simpl; unfold tvalf in *; simpl; congruence.
Qed.

Lemma tfind_tupd : forall f x t y,
  tfind (tupd f x t) y =
  if N.eqb x y then option_map (fun nd => mkTN (tn_val nd) (f (tn_rc nd))) (tfind t y) else tfind t y.
Proof.
  induction t as [|[i n] r IH]; intros y; simpl.
  - destruct (N.eqb x y); reflexivity.
  - destruct (N.eqb_spec i x); simpl.
    + subst i. destruct (N.eqb x y); reflexivity.
    + destruct (N.eqb_spec i y); [|apply IH].
      subst i. destruct (N.eqb_spec x y); [congruence|reflexivity].
Qed.

Lemma tfind_tupd_val : forall f x t y,
  option_map tn_val (tfind (tupd f x t) y) = option_map tn_val (tfind t y).
Proof.
  intros f x t y. rewrite tfind_tupd. destruct (N.eqb x y), (tfind t y); reflexivity.
Qed.

Lemma stored_tupd : forall f x t y, stored_b (tupd f x t) y = stored_b t y.
Proof.
  intros f x t y. unfold stored_b. rewrite tfind_tupd. destruct (N.eqb x y), (tfind t y); reflexivity.
Qed.

Lemma tfind_val_some : forall t v x, tfind_val t v = Some x ->
  exists nd, In (x, nd) t /\ tn_val nd = v.
Proof.
  induction t as [|[i n] r IH]; simpl; intros v x H; [discriminate|].
  destruct (N.eqb_spec (tn_val n) v).
  - inversion H; subst. eauto.
  - destruct (IH _ _ H) as (nd & I & E). eauto.
Qed.

Lemma tfind_val_stored : forall t v x, NoDup (map fst t) -> tfind_val t v = Some x ->
  exists nd, tfind t x = Some nd /\ tn_val nd = v.
Proof.
  intros t v x ND H. destruct (tfind_val_some _ _ _ H) as (nd & I & E).
  exists nd. split; [apply in_tfind|]; assumption.
Qed.

Lemma tfind_val_none : forall t v, tfind_val t v = None -> ~ In v (map tvalf t).
Proof.
  induction t as [|[i n] r IH]; simpl; intros v H; [tauto|].
  destruct (N.eqb_spec (tn_val n) v); [discriminate|].
  intros [E|E]; [unfold tvalf in E; simpl in E; congruence|]. eapply IH; eauto.
Qed.

Lemma tremove_in : forall x t p, In p (tremove x t) -> In p t.
Proof.
  induction t as [|[i n] r IH]; simpl; intros p H; [tauto|].
  destruct (N.eqb i x); [auto|]. destruct H; auto.
Qed.

Lemma tremove_nodup : forall (A : Type) (g : N * tnode -> A) x t,
  NoDup (map g t) -> NoDup (map g (tremove x t)).
Proof.
  induction t as [|[i n] r IH]; simpl; intros ND; [constructor|].
  inversion ND as [|? ? NI ND']; subst.
  destruct (N.eqb i x); [assumption|].
  simpl. constructor; auto.
  intros I. apply NI. apply in_map_iff in I. destruct I as (p & E & I).
  apply in_map_iff. exists p. split; auto. eapply tremove_in; eauto.
Qed.

Lemma tfind_tremove : forall x t y, NoDup (map fst t) ->
  tfind (tremove x t) y = if N.eqb x y then None else tfind t y.
Proof.
  induction t as [|[i n] r IH]; intros y ND; simpl.
  - destruct (N.eqb x y); reflexivity.
  - inversion ND as [|? ? NI ND']; subst. destruct (N.eqb_spec i x).
    + subst i. destruct (N.eqb_spec x y); [subst; apply tfind_none_iff; assumption | reflexivity].
    + simpl. destruct (N.eqb_spec i y); [|auto].
      subst i. destruct (N.eqb_spec x y); [congruence|reflexivity].
Qed.

(** values pairwise distinct: hash consing.  The log-level replay of ConcTermLog.v keeps the same
    four clauses. *)
Definition TabOk (t : ttab) (fr : list N) : Prop :=
  NoDup (map fst t) /\ NoDup (map tvalf t) /\ NoDup fr /\ forall x, In x fr -> tfind t x = None.

Lemma tabok_tupd : forall f x t fr, TabOk t fr -> TabOk (tupd f x t) fr.
Proof.
  intros f x t fr (A & B & C & D). unfold TabOk. rewrite tupd_fst, tupd_vals.
  repeat split; auto.
  intros y J. apply stored_b_false. rewrite stored_tupd. apply stored_b_false. auto.
Qed.

(** `get_edge` of a new value takes the head of the free chain *)
Lemma tabok_new : forall v x t fr, TabOk t (x :: fr) -> tfind_val t v = None ->
  TabOk ((x, mkTN v 1) :: t) fr.
Proof.
  intros v x t fr (A & B & C & D) FV. inversion C as [|? ? NI C']; subst.
  repeat split; simpl; auto.
  - constructor; [apply tfind_none_iff; apply D; left; reflexivity | assumption].
  - constructor; [apply tfind_val_none; assumption | assumption].
  - intros y J. destruct (N.eqb_spec x y); [subst; contradiction|]. apply D. right. assumption.
Qed.

(** the collector pushes the slot of a removed terminal onto the free chain *)
Lemma tabok_remove : forall x t fr nd, TabOk t fr -> tfind t x = Some nd ->
  TabOk (tremove x t) (x :: fr).
Proof.
  intros x t fr nd (A & B & C & D) F. repeat split.
  - apply tremove_nodup; assumption.
  - apply tremove_nodup; assumption.
  - constructor; [|assumption]. intros J. rewrite (D _ J) in F. discriminate.
  - intros y J. rewrite tfind_tremove by assumption. destruct (N.eqb_spec x y); [reflexivity|].
    destruct J; [contradiction|auto].
Qed.

Lemma xinv_tab : forall s, XInv s -> TabOk (ct_tt s) (ct_free s).
Proof. intros s I. repeat split; apply I. Qed.

(** ** tokens *)

Lemma owned_b_owners : forall own x, owned_b own x = true <-> 0 < xowners own x.
Proof.
  induction own as [|o r IH]; simpl; intros x.
  - split; [discriminate|lia].
  - destruct (N.eqb (snd o) x); simpl.
    + split; intros; [lia|reflexivity].
    + apply IH.
Qed.

Lemma owned_b_in : forall own x, owned_b own x = true <-> exists o, In o own /\ snd o = x.
Proof.
  unfold owned_b; intros own x. rewrite existsb_exists.
  split; intros (o & I & E); exists o; split; auto; apply N.eqb_eq; assumption.
Qed.

Lemma in_owners_pos : forall own o, In o own -> 0 < xowners own (snd o).
Proof. intros own o I. apply owned_b_owners, owned_b_in. eauto. Qed.

Lemma tok_eqb_eq : forall a b, xtok_eqb a b = true -> a = b.
Proof.
  intros [h x] [h' y]; unfold xtok_eqb; simpl; intros H.
  apply andb_true_iff in H. destruct H as [A B].
  apply Nat.eqb_eq in A. apply N.eqb_eq in B. congruence.
Qed.

Lemma take_tok_owners : forall o own own', xtake_tok o own = Some own' ->
  forall y, xowners own y = (if N.eqb (snd o) y then 1 else 0) + xowners own' y.
Proof.
  induction own as [|p r IH]; simpl; intros own' H y; [discriminate|].
  destruct (xtok_eqb o p) eqn:E.
  - inversion H; subst. apply tok_eqb_eq in E. subst. reflexivity.
  - destruct (xtake_tok o r) eqn:T; [|discriminate]. inversion H; subst. simpl.
    rewrite (IH _ eq_refl y). lia.
Qed.

Lemma take_tok_in : forall o own own', xtake_tok o own = Some own' -> forall p, In p own' -> In p own.
Proof.
  induction own as [|q r IH]; simpl; intros own' H p I; [discriminate|].
  destruct (xtok_eqb o q).
  - inversion H; subst. auto.
  - destruct (xtake_tok o r) eqn:T; [|discriminate]. inversion H; subst.
    destruct I; [auto|]. right. eapply IH; eauto.
Qed.

Lemma take_tok_has : forall o own own', xtake_tok o own = Some own' -> In o own.
Proof.
  induction own as [|q r IH]; simpl; intros own' H; [discriminate|].
  destruct (xtok_eqb o q) eqn:E.
  - apply tok_eqb_eq in E. auto.
  - destruct (xtake_tok o r) eqn:T; [|discriminate]. right. eapply IH; eauto.
Qed.

Lemma owned_live : forall s o, XInv s -> In o (ct_own s) ->
  exists nd, tfind (ct_tt s) (snd o) = Some nd /\ (0 < tn_rc nd)%N.
Proof.
  intros s o I J. destruct (proj1 (stored_b_true _ _) (xi_own _ I _ J)) as (nd & F).
  exists nd. split; [assumption|].
  assert (RC := xi_rc _ I _ _ F). assert (P := in_owners_pos _ _ J). lia.
Qed.

(** ** buckets *)

Lemma nth_upd : forall (A : Type) (l : list A) i j x,
  nth_error (xupd_nth l i x) j =
  if Nat.eqb i j then option_map (fun _ => x) (nth_error l j) else nth_error l j.
Proof.
  induction l as [|a r IH]; intros [|i] [|j] x; simpl; auto.
  destruct (Nat.eqb i j); reflexivity.
Qed.

Lemma ids_eqb_eq : forall a b, ids_eqb a b = true -> a = b.
Proof.
  induction a as [|x r IH]; intros [|y s] H; simpl in *; try discriminate; auto.
  apply andb_true_iff in H. destruct H as [A B]. apply N.eqb_eq in A. f_equal; auto.
Qed.

Lemma nodup_b_iff : forall l, nodup_b l = true <-> NoDup l.
Proof.
  induction l as [|x r IH]; simpl.
  - split; [constructor|reflexivity].
  - rewrite andb_true_iff, negb_true_iff, IH, NoDup_cons_iff, <- not_true_iff_false, existsb_exists.
    split; intros [A B]; split; auto.
    + intros J. apply A. exists x. split; [exact J|apply N.eqb_refl].
    + intros (y & J & E). apply N.eqb_eq in E. subst y. contradiction.
Qed.

Lemma tphase_eqb_eq : forall a b, tphase_eqb a b = true -> a = b.
Proof. intros [] []; simpl; intros H; try discriminate; reflexivity. Qed.

Inductive xstep_eff (late : bool) (s : cts) : xact -> cts -> xres -> Prop :=
| XE_found h v x (FV : tfind_val (ct_tt s) v = Some x) :
    xstep_eff late s (XGet h v)
      (mkCT (tupd N.succ x (ct_tt s)) (ct_free s) ((h, x) :: ct_own s) (ct_b s) (ct_ph s) (ct_next s))
      (XRterm x)
| XE_oom h v (FV : tfind_val (ct_tt s) v = None) (FR : ct_free s = []) :
    xstep_eff late s (XGet h v) s XRoom
| XE_new h v x fr (FV : tfind_val (ct_tt s) v = None) (FR : ct_free s = x :: fr) :
    xstep_eff late s (XGet h v)
      (mkCT ((x, mkTN v 1) :: ct_tt s) fr ((h, x) :: ct_own s) (ct_b s) (ct_ph s) (ct_next s)) (XRterm x)
| XE_retain h x (OB : owned_b (ct_own s) x = true) :
    xstep_eff late s (XRetain h x)
      (mkCT (tupd N.succ x (ct_tt s)) (ct_free s) ((h, x) :: ct_own s) (ct_b s) (ct_ph s) (ct_next s)) XRunit
| XE_drop h x own' (TT : xtake_tok (h, x) (ct_own s) = Some own') :
    xstep_eff late s (XDrop h x)
      (mkCT (tupd N.pred x (ct_tt s)) (ct_free s) own' (ct_b s) (ct_ph s) (ct_next s)) XRunit
| XE_move h h' x own' (TT : xtake_tok (h, x) (ct_own s) = Some own') :
    xstep_eff late s (XMove h h' x)
      (mkCT (ct_tt s) (ct_free s) ((h', x) :: own') (ct_b s) (ct_ph s) (ct_next s)) XRunit
| XE_lock tid b bk (NB : nth_error (ct_b s) b = Some bk) (FR : is_free (tb_lock bk) = true) :
    xstep_eff late s (XTryLock tid b)
      (mkCT (ct_tt s) (ct_free s) (ct_own s) (xupd_nth (ct_b s) b (mkTB (tb_ent bk) (LWorker tid)))
            (ct_ph s) (ct_next s)) XRunit
| XE_busy tid b bk (NB : nth_error (ct_b s) b = Some bk) (FR : is_free (tb_lock bk) = false) :
    xstep_eff late s (XTryLock tid b) s XRbusy
| XE_add tid b e bk (NB : nth_error (ct_b s) b = Some bk)
    (C : held_by (tb_lock bk) tid && forallb (owned_b (ct_own s)) (te_ids e) = true) :
    xstep_eff late s (XAdd tid b e)
      (mkCT (ct_tt s) (ct_free s) (ct_own s) (xupd_nth (ct_b s) b (mkTB (Some e) (tb_lock bk)))
            (ct_ph s) (ct_next s)) XRunit
| XE_hit tid b args bk e t' own' (NB : nth_error (ct_b s) b = Some bk)
    (HB : held_by (tb_lock bk) tid = true) (EN : tb_ent bk = Some e)
    (IE : ids_eqb args (te_args e) = true)
    (RV : retain_vals tid (te_vals e) (ct_tt s) (ct_own s) = (t', own')) :
    xstep_eff late s (XLookup tid b args)
      (mkCT t' (ct_free s) own' (ct_b s) (ct_ph s) (ct_next s)) (XRhit (te_vals e))
| XE_miss tid b args bk e (NB : nth_error (ct_b s) b = Some bk) (HB : held_by (tb_lock bk) tid = true)
    (EN : tb_ent bk = Some e) (IE : ids_eqb args (te_args e) = false) :
    xstep_eff late s (XLookup tid b args) s XRmiss
| XE_miss_empty tid b args bk (NB : nth_error (ct_b s) b = Some bk)
    (HB : held_by (tb_lock bk) tid = true) (EN : tb_ent bk = None) :
    xstep_eff late s (XLookup tid b args) s XRmiss
| XE_unlock tid b bk (NB : nth_error (ct_b s) b = Some bk) (HB : held_by (tb_lock bk) tid = true) :
    xstep_eff late s (XUnlock tid b)
      (mkCT (ct_tt s) (ct_free s) (ct_own s) (xupd_nth (ct_b s) b (mkTB (tb_ent bk) LFree))
            (ct_ph s) (ct_next s)) XRunit
| XE_gc_begin (PH : ct_ph s = PIdle) :
    xstep_eff late s XGcBegin (mkCT (ct_tt s) (ct_free s) (ct_own s) (ct_b s) PLock 0) XRunit
| XE_gc_lock b bk (PH : ct_ph s = PLock) (B : Nat.eqb b (ct_next s) = true)
    (NB : nth_error (ct_b s) b = Some bk) (FR : is_free (tb_lock bk) = true) :
    xstep_eff late s (XGcLockBucket b)
      (mkCT (ct_tt s) (ct_free s) (ct_own s) (xupd_nth (ct_b s) b (mkTB None LCollector))
            PLock (S (ct_next s))) XRunit
| XE_sweep_begin (PH : ct_ph s = PLock) (NX : Nat.eqb (ct_next s) (length (ct_b s)) = true) :
    xstep_eff late s XGcSweepBegin (mkCT (ct_tt s) (ct_free s) (ct_own s) (ct_b s) PSweep 0) XRunit
| XE_freed x nd (PH : tphase_eqb (ct_ph s) (if late then PLate else PSweep) = true)
    (F : tfind (ct_tt s) x = Some nd) (Z : N.eqb (tn_rc nd) 0 = true) :
    xstep_eff late s (XGcTerm x)
      (mkCT (tremove x (ct_tt s)) (x :: ct_free s) (ct_own s) (ct_b s) (ct_ph s) (ct_next s)) XRfreed
| XE_kept x nd (PH : tphase_eqb (ct_ph s) (if late then PLate else PSweep) = true)
    (F : tfind (ct_tt s) x = Some nd) (Z : N.eqb (tn_rc nd) 0 = false) :
    xstep_eff late s (XGcTerm x) s XRkept
| XE_sweep_done (PH : ct_ph s = PSweep) :
    xstep_eff late s XGcSweepDone (mkCT (ct_tt s) (ct_free s) (ct_own s) (ct_b s) PUnlock 0) XRunit
| XE_gc_unlock b bk (PH : ct_ph s = PUnlock) (B : Nat.eqb b (ct_next s) = true)
    (NB : nth_error (ct_b s) b = Some bk) :
    xstep_eff late s (XGcUnlockBucket b)
      (mkCT (ct_tt s) (ct_free s) (ct_own s) (xupd_nth (ct_b s) b (mkTB (tb_ent bk) LFree))
            PUnlock (S (ct_next s))) XRunit
| XE_late_begin (PH : ct_ph s = PUnlock) (C : late && Nat.eqb (ct_next s) (length (ct_b s)) = true) :
    xstep_eff late s XGcLateBegin (mkCT (ct_tt s) (ct_free s) (ct_own s) (ct_b s) PLate 0) XRunit
| XE_end (PH : ct_ph s = PUnlock) (C : negb late && Nat.eqb (ct_next s) (length (ct_b s)) = true) :
    xstep_eff late s XGcEnd (mkCT (ct_tt s) (ct_free s) (ct_own s) (ct_b s) PIdle 0) XRunit
| XE_end_late (PH : ct_ph s = PLate) (L : late = true) :
    xstep_eff late s XGcEnd (mkCT (ct_tt s) (ct_free s) (ct_own s) (ct_b s) PIdle 0) XRunit.

Lemma xstep_spec : forall late s a s' r, xstep late s a = Some (s', r) -> xstep_eff late s a s' r.
Proof.
  intros late s a s' r H.
  destruct a; simpl in H; step_cases H; injection H as <- <-; econstructor; solve [eauto].
Qed.

(** ** the invariant is preserved by every action of every holder and of the collector *)

Ltac inv_some :=
  match goal with
  | H : Some _ = Some _ |- _ => injection H; intros; subst; clear H
  | H : None = Some _ |- _ => discriminate H
  end.

(** the cache part and the phase part only depend on these components *)
Lemma tinv_same_cache : forall s t' fr' own',
  XInv s -> TabOk t' fr' ->
  (forall x nd, tfind t' x = Some nd -> N.to_nat (tn_rc nd) = xowners own' x) ->
  (forall o, In o own' -> stored_b t' (snd o) = true) ->
  (forall y, stored_b (ct_tt s) y = true -> stored_b t' y = true) ->
  XInv (mkCT t' fr' own' (ct_b s) (ct_ph s) (ct_next s)).
Proof.
  intros s t' fr' own' I (A & B & C & D) E F G. constructor; simpl; auto.
  - intros b bk e x N1 N2 N3. apply G. eapply (xi_cache _ I); eauto.
  - apply (xi_claim _ I).
Qed.

Lemma tinv_same_terms : forall s bs ph nx,
  XInv s ->
  (forall b bk e x, nth_error bs b = Some bk -> tb_ent bk = Some e -> In x (te_ids e) ->
                    stored_b (ct_tt s) x = true) ->
  (forall b bk, nth_error bs b = Some bk -> claimed_b ph nx b = true ->
                tb_ent bk = None /\ tb_lock bk = LCollector) ->
  XInv (mkCT (ct_tt s) (ct_free s) (ct_own s) bs ph nx).
Proof.
  intros s bs ph nx I A B. constructor; simpl; auto; apply I.
Qed.

Lemma tinv_set_bucket : forall s b bk bk' ph nx,
  XInv s -> nth_error (ct_b s) b = Some bk ->
  (forall e x, tb_ent bk' = Some e -> In x (te_ids e) -> stored_b (ct_tt s) x = true) ->
  (claimed_b ph nx b = true -> tb_ent bk' = None /\ tb_lock bk' = LCollector) ->
  (forall b', b' <> b -> claimed_b ph nx b' = true -> claimed_b (ct_ph s) (ct_next s) b' = true) ->
  XInv (mkCT (ct_tt s) (ct_free s) (ct_own s) (xupd_nth (ct_b s) b bk') ph nx).
Proof.
  intros s b bk bk' ph nx I NB A B C. apply tinv_same_terms; auto.
  - intros b' bk1 e x N1 N2 N3. rewrite nth_upd in N1. destruct (Nat.eqb_spec b b').
    + subst b'. rewrite NB in N1. inversion N1; subst. eauto.
    + eapply (xi_cache _ I); eauto.
  - intros b' bk1 N1 Cl. rewrite nth_upd in N1. destruct (Nat.eqb_spec b b').
    + subst b'. rewrite NB in N1. inversion N1; subst. auto.
    + apply (xi_claim _ I _ _ N1). auto.
Qed.

Lemma not_claimed_of_lock : forall s b bk, XInv s -> nth_error (ct_b s) b = Some bk ->
  tb_lock bk <> LCollector -> claimed_b (ct_ph s) (ct_next s) b = false.
Proof.
  intros s b bk I N1 NL. destruct (claimed_b (ct_ph s) (ct_next s) b) eqn:C; [|reflexivity].
  destruct (xi_claim _ I _ _ N1 C) as [_ L]. contradiction.
Qed.

Lemma tinv_tupd : forall s f x own', XInv s ->
  (forall o, In o own' -> stored_b (ct_tt s) (snd o) = true) ->
  (forall y nd, tfind (ct_tt s) y = Some nd ->
     N.to_nat (if N.eqb x y then f (tn_rc nd) else tn_rc nd) = xowners own' y) ->
  XInv (mkCT (tupd f x (ct_tt s)) (ct_free s) own' (ct_b s) (ct_ph s) (ct_next s)).
Proof.
  intros s f x own' I OW RC. apply tinv_same_cache; auto.
  - apply tabok_tupd, xinv_tab, I.
  - intros y nd' F'. rewrite tfind_tupd in F'. specialize (RC y).
    destruct (N.eqb x y); [|auto]. destruct (tfind (ct_tt s) y) as [nd|]; [|discriminate].
    inversion F'; subst. simpl. auto.
  - intros o J. rewrite stored_tupd. auto.
  - intros y S. rewrite stored_tupd. assumption.
Qed.

(** `clone_edge`: one more counted edge to a stored terminal *)
Lemma tinv_retain : forall s h x, XInv s -> stored_b (ct_tt s) x = true ->
  XInv (mkCT (tupd N.succ x (ct_tt s)) (ct_free s) ((h, x) :: ct_own s) (ct_b s) (ct_ph s) (ct_next s)).
Proof.
  intros s h x I S. apply tinv_tupd; auto.
  - intros o [J|J]; [subst; assumption | apply (xi_own _ I _ J)].
  - intros y nd F. simpl. assert (RC := xi_rc _ I _ _ F). destruct (N.eqb x y); lia.
Qed.

(** a hit: `clone_edge` of every value edge *)
Lemma retain_vals_spec : forall tid vals t own t' own',
  retain_vals tid vals t own = (t', own') ->
  (forall y, option_map tn_val (tfind t' y) = option_map tn_val (tfind t y)) /\
  (forall o, In o own -> In o own') /\
  (forall x, In x vals -> In (tid, x) own').
Proof.
  induction vals as [|x r IH]; simpl; intros t own t' own' H.
  - inversion H; subst. repeat split; auto. intros x [].
  - apply IH in H. destruct H as (D & F & G). repeat split.
    + intros y. rewrite D. apply tfind_tupd_val.
    + intros o I. apply F. right. assumption.
    + intros y [J|J]; [subst; apply F; left; reflexivity | auto].
Qed.

Lemma tinv_retain_vals : forall tid vals s t' own', XInv s ->
  (forall x, In x vals -> stored_b (ct_tt s) x = true) ->
  retain_vals tid vals (ct_tt s) (ct_own s) = (t', own') ->
  XInv (mkCT t' (ct_free s) own' (ct_b s) (ct_ph s) (ct_next s)).
Proof.
  induction vals as [|x r IH]; simpl; intros s t' own' I ST H.
  - inversion H; subst. destruct s; assumption.
  - apply (IH (mkCT (tupd N.succ x (ct_tt s)) (ct_free s) ((tid, x) :: ct_own s)
                    (ct_b s) (ct_ph s) (ct_next s))); auto.
    + apply tinv_retain; auto.
    + intros y J. simpl. rewrite stored_tupd. auto.
Qed.

Theorem xstep_inv : forall s a s' r, XInv s -> xstep false s a = Some (s', r) -> XInv s'.
Proof.
  intros s a s' r I H. destruct (xstep_spec _ _ _ _ _ H); try assumption; try discriminate L; try discriminate C; clear H.
  - (* XGet, found *)
    destruct (tfind_val_stored _ _ _ (xi_ids _ I) FV) as (nd & F & _).
    apply tinv_retain; [assumption | apply stored_b_true; eauto].
  - (* XGet, new *)
    assert (T := xinv_tab _ I). rewrite FR in T.
    assert (NF : tfind (ct_tt s) x = None) by (apply T; left; reflexivity).
    apply tinv_same_cache; auto.
    + apply tabok_new; assumption.
    + intros y nd F. simpl in *. destruct (N.eqb_spec x y); [|apply (xi_rc _ I _ _ F)].
      (* nobody holds a counted edge to a slot of the free chain *)
      subst. inversion F; subst; simpl.
      destruct (xowners (ct_own s) y) eqn:OW; [reflexivity|].
      assert (OB : owned_b (ct_own s) y = true) by (apply owned_b_owners; lia).
      apply owned_b_in in OB. destruct OB as (o & J & E). apply (xi_own _ I) in J.
      rewrite E in J. apply stored_b_false in NF. congruence.
    + intros o [J|J]; unfold stored_b; simpl.
      * subst. simpl. rewrite N.eqb_refl. reflexivity.
      * assert (S := xi_own _ I _ J). unfold stored_b in S. destruct (N.eqb x (snd o)); auto.
    + intros y S. unfold stored_b in *. simpl. destruct (N.eqb x y); auto.
  - (* XRetain *)
    apply owned_b_in in OB. destruct OB as (o & J & <-).
    apply tinv_retain; [assumption | apply (xi_own _ I _ J)].
  - (* XDrop *)
    apply tinv_tupd; auto.
    + intros o J'. apply (xi_own _ I). eapply take_tok_in; eauto.
    + intros y nd F. assert (TO := take_tok_owners _ _ _ TT y). simpl in TO.
      assert (RC := xi_rc _ I _ _ F). destruct (N.eqb x y); lia.
  - (* XMove *)
    apply tinv_same_cache; auto.
    + apply xinv_tab, I.
    + intros y nd F. assert (TO := take_tok_owners _ _ _ TT y). simpl in TO. simpl.
      rewrite (xi_rc _ I _ _ F). lia.
    + intros o [J|J].
      * subst. simpl. apply (xi_own _ I _ (take_tok_has _ _ _ TT)).
      * apply (xi_own _ I). eapply take_tok_in; eauto.
  - (* XTryLock *)
    apply (tinv_set_bucket _ _ _ _ _ _ I NB); simpl; trivial.
    + intros e x. apply (xi_cache _ I _ _ _ _ NB).
    + intros C. destruct (xi_claim _ I _ _ NB C) as [_ L]. rewrite L in FR. discriminate.
  - (* XAdd *)
    apply andb_true_iff in C. destruct C as [HB FA].
    assert (NC : claimed_b (ct_ph s) (ct_next s) b = false).
    { eapply not_claimed_of_lock; eauto. destruct (tb_lock bk); simpl in HB; congruence. }
    apply (tinv_set_bucket _ _ _ _ _ _ I NB); simpl; trivial; [|congruence].
    (* the operands and the value are borrowed from counted edges *)
    intros e' x E J. inversion E; subst e'. rewrite forallb_forall in FA.
    apply FA, owned_b_in in J. destruct J as (o & J & <-). apply (xi_own _ I _ J).
  - (* XLookup, hit *)
    apply (tinv_retain_vals tid (te_vals e)); auto.
    intros x J. eapply (xi_cache _ I); eauto. unfold te_ids. apply in_or_app. auto.
  - (* XUnlock *)
    assert (NC : claimed_b (ct_ph s) (ct_next s) b = false).
    { eapply not_claimed_of_lock; eauto. destruct (tb_lock bk); simpl in HB; congruence. }
    apply (tinv_set_bucket _ _ _ _ _ _ I NB); simpl; trivial; [|congruence].
    intros e x. apply (xi_cache _ I _ _ _ _ NB).
  - (* XGcBegin *)
    apply tinv_same_terms; auto.
    + apply (xi_cache _ I).
    + intros b bk N1 C. simpl in C. discriminate.
  - (* XGcLockBucket *)
    apply Nat.eqb_eq in B. subst b.
    apply (tinv_set_bucket _ _ _ _ _ _ I NB); simpl; [discriminate | auto |].
    intros b' NE C. rewrite PH. simpl. apply Nat.ltb_lt in C. apply Nat.ltb_lt. lia.
  - (* XGcSweepBegin *)
    apply tinv_same_terms; auto.
    + apply (xi_cache _ I).
    + intros b bk N1 _. apply (xi_claim _ I _ _ N1). rewrite PH. simpl.
      apply Nat.ltb_lt. apply Nat.eqb_eq in NX. rewrite NX. apply nth_error_Some. congruence.
  - (* XGcTerm, freed: only between pre_gc and post_gc *)
    apply tphase_eqb_eq in PH. simpl in PH. apply N.eqb_eq in Z.
    assert (O : xowners (ct_own s) x = 0) by (rewrite <- (xi_rc _ I _ _ F), Z; reflexivity).
    destruct (tabok_remove _ _ _ _ (xinv_tab _ I) F) as (A & B & C & D).
    constructor; simpl; auto.
    + intros y nd' F'. rewrite tfind_tremove in F' by apply I.
      destruct (N.eqb x y); [discriminate | apply (xi_rc _ I _ _ F')].
    + intros o J. assert (S := xi_own _ I _ J). unfold stored_b in *.
      rewrite tfind_tremove by apply I. destruct (N.eqb_spec x (snd o)) as [E|]; [|assumption].
      assert (P := in_owners_pos _ _ J). rewrite <- E in P. lia.
    + (* all buckets are held by the collector, hence empty *)
      intros b bk e' y N1 N2 N3.
      assert (Cl : claimed_b (ct_ph s) (ct_next s) b = true) by (rewrite PH; reflexivity).
      destruct (xi_claim _ I _ _ N1 Cl) as [EN _]. congruence.
    + apply (xi_claim _ I).
  - (* XGcSweepDone *)
    apply tinv_same_terms; auto.
    + apply (xi_cache _ I).
    + intros b bk N1 _. apply (xi_claim _ I _ _ N1). rewrite PH. reflexivity.
  - (* XGcUnlockBucket *)
    apply Nat.eqb_eq in B. subst b.
    apply (tinv_set_bucket _ _ _ _ _ _ I NB); cbn [claimed_b tb_ent].
    + intros e' x. apply (xi_cache _ I _ _ _ _ NB).
    + intros C. apply Nat.leb_le in C. lia.
    + intros b' NE C. rewrite PH. apply Nat.leb_le in C. apply Nat.leb_le. lia.
  - (* XGcEnd *)
    apply tinv_same_terms; auto.
    + apply (xi_cache _ I).
    + intros b bk N1 Cl. simpl in Cl. discriminate.
Qed.

Theorem xrun_inv : forall sched s s', XInv s -> xrun false s sched = Some s' -> XInv s'.
Proof.
  induction sched as [|a r IH]; simpl; intros s s' I H.
  - inversion H; subst; assumption.
  - destruct (xstep false s a) as [[s1 x]|] eqn:ST; [|discriminate].
    eapply IH; [eapply xstep_inv; eauto | assumption].
Qed.

Lemma seq_N_nodup : forall n k, NoDup (map N.of_nat (seq k n)).
Proof.
  induction n as [|n IH]; simpl; intros k; constructor; auto.
  intros J. apply in_map_iff in J. destruct J as (m & E & J). apply in_seq in J.
  apply Nat2N.inj in E. lia.
Qed.

Theorem ctinit_inv : forall cap nb, XInv (ctinit cap nb).
Proof.
  intros cap nb. constructor; simpl.
  - constructor.
  - constructor.
  - apply seq_N_nodup.
  - reflexivity.
  - intros x nd H. discriminate.
  - intros o [].
  - intros b bk e x N1 N2. apply nth_error_In, repeat_spec in N1. subst. discriminate.
  - intros b bk _ C. discriminate.
Qed.

(** every state the code's protocol reaches from the empty manager, under every schedule *)
Definition xreachable (cap nb : nat) (s : cts) : Prop :=
  exists sched, xrun false (ctinit cap nb) sched = Some s.

Theorem xreachable_inv : forall cap nb s, xreachable cap nb s -> XInv s.
Proof.
  intros cap nb s (sched & H). eapply xrun_inv; [apply ctinit_inv | eassumption].
Qed.
