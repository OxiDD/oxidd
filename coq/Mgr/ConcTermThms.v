(** * C07 — terminals, apply cache and collector: consequences of the invariant
    (executable checkers, cache hits, the terminal collector, memoised values) *)

From Coq Require Import List NArith Bool Arith Lia.
From OxiVerif Require Import Mgr.ConcTerm Mgr.ConcTermProofs.
Import ListNotations.

(** ** the executable checkers decide the invariant *)

Lemma claimed_ok_b_iff : forall ph next bs i,
  claimed_ok_b ph next i bs = true <->
  (forall b bk, nth_error bs b = Some bk -> claimed_b ph next (i + b) = true ->
                tb_ent bk = None /\ tb_lock bk = LCollector).
Proof.
  induction bs as [|bk0 r IH]; simpl; intros i.
  - split; [intros _ [|b] bk H; discriminate | reflexivity].
  - rewrite andb_true_iff, IH. split.
    + intros [A B] [|b] bk N1 C; simpl in N1.
      * inversion N1; subst. rewrite Nat.add_0_r in C. rewrite C in A.
        apply andb_true_iff in A. destruct A as [A1 A2].
        destruct (tb_ent bk); [discriminate|]. destruct (tb_lock bk); try discriminate. auto.
      * apply (B b bk N1). replace (S i + b) with (i + S b) by lia. assumption.
    + intros H. split.
      * destruct (claimed_b ph next i) eqn:C; [|reflexivity].
        destruct (H 0 bk0 eq_refl) as [A B]; [rewrite Nat.add_0_r; assumption|].
        rewrite A, B. reflexivity.
      * intros b bk N1 C. apply (H (S b) bk N1). replace (i + S b) with (S i + b) by lia. assumption.
Qed.

Lemma tinv_b_iff : forall s, tinv_b s = true <-> XInv s.
Proof.
  intros s. unfold tinv_b, xterms_unique_b, counts_exact_b, xno_dangling_b, phase_ok_b.
  rewrite !andb_true_iff, !nodup_b_iff, !forallb_forall, claimed_ok_b_iff. split.
  - intros [[[[[[A B] C] D] [E F]] G] P]. constructor; auto.
    + intros x J. apply stored_b_false, negb_true_iff. auto.
    + intros x nd F'. apply tfind_in, E in F'. apply Nat.eqb_eq. exact F'.
    + intros b bk e x N1 N2 N3. apply nth_error_In, G in N1. rewrite N2, forallb_forall in N1. auto.
  - intros I. repeat split; try apply I; try (eapply (xi_claim _ I); eassumption).
    + intros x J. apply negb_true_iff, stored_b_false, (xi_free_disj _ I _ J).
    + intros [x nd] J. simpl. apply Nat.eqb_eq, (xi_rc _ I), in_tfind; [apply I | assumption].
    + intros bk J. destruct (tb_ent bk) as [e|] eqn:EN; [|reflexivity].
      apply forallb_forall. intros x K. apply In_nth_error in J. destruct J as (b & N1).
      eapply (xi_cache _ I); eauto.
Qed.

Theorem tinv_b_sound : forall s, tinv_b s = true -> XInv s.
Proof. apply tinv_b_iff. Qed.

Theorem tinv_b_complete : forall s, XInv s -> tinv_b s = true.
Proof. apply tinv_b_iff. Qed.

(** no weak edge dangles, the table is duplicate free, the counts are exact: in every state the
    code's protocol reaches *)
Theorem xreachable_checks : forall cap nb s, xreachable cap nb s ->
  xno_dangling_b s = true /\ xterms_unique_b s = true /\ counts_exact_b s = true.
Proof.
  intros cap nb s R. assert (H := tinv_b_complete _ (xreachable_inv _ _ _ R)).
  unfold tinv_b in H.
  apply andb_true_iff in H. destruct H as [H _].
  apply andb_true_iff in H. destruct H as [H D].
  apply andb_true_iff in H. destruct H as [U C]. auto.
Qed.

(** ** a cache hit *)

(** the hit returns the value edges of the entry; every one of them is a stored terminal that
    carries the value it carried before, with a positive count, and the thread owns it *)
Theorem xhit_valid : forall s tid b args s' vals,
  XInv s -> xstep false s (XLookup tid b args) = Some (s', XRhit vals) ->
  XInv s' /\
  (exists bk e, nth_error (ct_b s) b = Some bk /\ tb_lock bk = LWorker tid /\ tb_ent bk = Some e /\
                args = te_args e /\ vals = te_vals e) /\
  (forall x, In x vals ->
     In (tid, x) (ct_own s') /\
     exists nd nd', tfind (ct_tt s) x = Some nd /\ tfind (ct_tt s') x = Some nd' /\
                    tn_val nd' = tn_val nd /\ (0 < tn_rc nd')%N).
Proof.
  intros s tid b args s' vals I H.
  assert (I' : XInv s') by (eapply xstep_inv; eauto). split; [assumption|].
  pose proof (xstep_spec _ _ _ _ _ H) as E. inversion E; subst; clear E H. split.
  - exists bk, e. repeat split; auto.
    + destruct (tb_lock bk); simpl in HB; try discriminate. apply Nat.eqb_eq in HB. congruence.
    + apply ids_eqb_eq. assumption.
  - destruct (retain_vals_spec _ _ _ _ _ _ RV) as (D & _ & G).
    intros x J. simpl. split; [auto|].
    destruct (owned_live _ _ I' (G x J)) as (nd' & F1 & P). simpl in F1.
    specialize (D x). rewrite F1 in D.
    destruct (tfind (ct_tt s) x) as [nd|]; [|discriminate].
    exists nd, nd'. repeat split; auto. simpl in D. congruence.
Qed.

(** ** the terminal collector *)

(** whenever the collector frees a terminal: the sweep phase, every bucket is empty and held
    by the collector, nobody owns a counted edge to the terminal, no cache entry names it *)
Theorem xgc_term_safe : forall s x s',
  XInv s -> xstep false s (XGcTerm x) = Some (s', XRfreed) ->
  ct_ph s = PSweep /\
  (forall b bk, nth_error (ct_b s) b = Some bk -> tb_ent bk = None /\ tb_lock bk = LCollector) /\
  xowners (ct_own s) x = 0 /\
  (forall o, In o (ct_own s) -> snd o <> x) /\
  XInv s' /\ tfind (ct_tt s') x = None /\ In x (ct_free s').
Proof.
  intros s x s' I H. assert (I' : XInv s') by (eapply xstep_inv; eauto).
  pose proof (xstep_spec _ _ _ _ _ H) as E. inversion E; subst; clear E H.
  apply tphase_eqb_eq in PH. simpl in PH. apply N.eqb_eq in Z.
  assert (O : xowners (ct_own s) x = 0) by (rewrite <- (xi_rc _ I _ _ F), Z; reflexivity).
  split; [assumption|].
  split. { intros b bk N1. apply (xi_claim _ I _ _ N1). rewrite PH. reflexivity. }
  split; [assumption|].
  split. { intros o J E. assert (P := in_owners_pos _ _ J). rewrite E in P. lia. }
  split; [assumption|].
  split; simpl; [|auto]. rewrite tfind_tremove by apply I. rewrite N.eqb_refl. reflexivity.
Qed.

(** the collector keeps every terminal somebody holds a counted edge to *)
Theorem xgc_term_keeps_owned : forall s x s' r y,
  XInv s -> xstep false s (XGcTerm x) = Some (s', r) -> 0 < xowners (ct_own s) y ->
  tfind (ct_tt s') y = tfind (ct_tt s) y.
Proof.
  intros s x s' r y I H P.
  pose proof (xstep_spec _ _ _ _ _ H) as E. inversion E; subst; clear E H; [|reflexivity].
  simpl. rewrite tfind_tremove by apply I. destruct (N.eqb_spec x y); [|reflexivity].
  subst. apply N.eqb_eq in Z. assert (RC := xi_rc _ I _ _ F). rewrite Z in RC. simpl in RC. lia.
Qed.

(** ** memoised values *)

(** some cache entry names the terminal [x] *)
Definition named (s : cts) (x : N) : Prop :=
  exists b bk e, nth_error (ct_b s) b = Some bk /\ tb_ent bk = Some e /\ In x (te_ids e).

Lemma xstep_vals : forall late s a s' r, xstep late s a = Some (s', r) ->
  (forall y, option_map tn_val (tfind (ct_tt s') y) = option_map tn_val (tfind (ct_tt s) y)) \/
  (exists h v x fr, a = XGet h v /\ ct_free s = x :: fr /\ ct_tt s' = (x, mkTN v 1) :: ct_tt s) \/
  (exists x, a = XGcTerm x /\ r = XRfreed /\ ct_tt s' = tremove x (ct_tt s)).
Proof.
  intros late s a s' r H.
  destruct (xstep_spec _ _ _ _ _ H); simpl; auto using tfind_tupd_val.
  - right; left; eauto 8.
  - left. eapply retain_vals_spec; eauto.
  - right; right; eauto.
Qed.

(** no action of any holder or of the collector removes or alters the value of a terminal
    that a cache entry names or that somebody holds a counted edge to *)
Theorem xstep_value_stable : forall s a s' r x nd,
  XInv s -> xstep false s a = Some (s', r) -> tfind (ct_tt s) x = Some nd ->
  named s x \/ 0 < xowners (ct_own s) x ->
  exists nd', tfind (ct_tt s') x = Some nd' /\ tn_val nd' = tn_val nd.
Proof.
  intros s a s' r x nd I H F NO.
  destruct (xstep_vals _ _ _ _ _ H) as [E|[(h & v & y & fr & _ & FR & E)|(y & -> & -> & E)]].
  - specialize (E x). rewrite F in E. destruct (tfind (ct_tt s') x) as [nd'|]; [|discriminate].
    exists nd'. split; auto. simpl in E. congruence.
  - rewrite E. simpl. destruct (N.eqb_spec y x); [|eauto]. subst y.
    rewrite (xi_free_disj _ I x) in F; [discriminate | rewrite FR; left; reflexivity].
  - rewrite E, tfind_tremove by apply I. destruct (N.eqb_spec y x); [|eauto]. subst y. exfalso.
    (* the collector frees what nobody owns, while it holds every bucket, all of them empty *)
    destruct (xgc_term_safe _ _ _ I H) as (_ & EMP & O & _).
    destruct NO as [(b & bk & e & N1 & N2 & _)|P]; [|lia].
    destruct (EMP _ _ N1) as [EN _]. congruence.
Qed.

Lemma xstep_buckets : forall late s a s' r, xstep late s a = Some (s', r) ->
  ct_b s' = ct_b s \/
  exists b bk bk', nth_error (ct_b s) b = Some bk /\ ct_b s' = xupd_nth (ct_b s) b bk' /\
    (tb_ent bk' = tb_ent bk \/ (exists tid e, a = XAdd tid b e) \/ a = XGcLockBucket b).
Proof.
  intros late s a s' r H.
  destruct (xstep_spec _ _ _ _ _ H); simpl; auto;
    right; do 3 eexists; (split; [eassumption|]); (split; [reflexivity|]); simpl; eauto 6.
Qed.

(** a bucket's entry changes only by an insertion into this bucket or by the collector's clear *)
Theorem xstep_entry_cases : forall late s a s' r b bk,
  xstep late s a = Some (s', r) -> nth_error (ct_b s) b = Some bk ->
  exists bk', nth_error (ct_b s') b = Some bk' /\
    (tb_ent bk' = tb_ent bk \/ (exists tid e, a = XAdd tid b e) \/ a = XGcLockBucket b).
Proof.
  intros late s a s' r b bk H NB.
  destruct (xstep_buckets _ _ _ _ _ H) as [E|(b0 & bk0 & bk' & N0 & E & C)]; rewrite E; [eauto|].
  rewrite nth_upd. destruct (Nat.eqb_spec b0 b); [|eauto].
  subst. rewrite NB. eexists; split; [reflexivity|]. rewrite N0 in NB. inversion NB; subst. assumption.
Qed.

(** actions that neither overwrite nor clear bucket [b] *)
Definition quiet (b : nat) (a : xact) : Prop :=
  match a with
  | XAdd _ b' _ => b' <> b
  | XGcLockBucket b' => b' <> b
  | _ => True
  end.

(** as long as an entry is neither overwritten nor cleared, it stays where it is and every
    terminal it names stays stored with the value it had: under every schedule *)
Theorem xrun_entry_memo : forall sched s s' b bk e,
  XInv s -> nth_error (ct_b s) b = Some bk -> tb_ent bk = Some e ->
  Forall (quiet b) sched -> xrun false s sched = Some s' ->
  XInv s' /\
  (exists bk', nth_error (ct_b s') b = Some bk' /\ tb_ent bk' = Some e) /\
  (forall x, In x (te_ids e) ->
     exists nd nd', tfind (ct_tt s) x = Some nd /\ tfind (ct_tt s') x = Some nd' /\ tn_val nd' = tn_val nd).
Proof.
  induction sched as [|a r IH]; simpl; intros s s' b bk e I NB EN Q H.
  - injection H as <-. split; auto. split; eauto.
    intros x J. assert (S := xi_cache _ I _ _ _ _ NB EN J). apply stored_b_true in S.
    destruct S as (nd & F). eauto.
  - destruct (xstep false s a) as [[s1 res]|] eqn:ST; [|discriminate].
    inversion Q as [|? ? Qa Qr]; subst.
    assert (I1 : XInv s1) by (eapply xstep_inv; eauto).
    destruct (xstep_entry_cases _ _ _ _ _ _ _ ST NB) as (bk1 & N1 & C).
    assert (E1 : tb_ent bk1 = Some e).
    { destruct C as [C|[(tid & e' & C)|C]]; [congruence | subst a; simpl in Qa; congruence | subst a; simpl in Qa; congruence]. }
    destruct (IH _ _ _ _ _ I1 N1 E1 Qr H) as (I' & B' & V').
    split; auto. split; auto.
    intros x J. destruct (V' x J) as (nd1 & nd' & F1 & F' & EV).
    assert (S := xi_cache _ I _ _ _ _ NB EN J). apply stored_b_true in S. destruct S as (nd & F).
    destruct (xstep_value_stable _ _ _ _ x nd I ST F) as (nd1' & F1' & EV1).
    { left. exists b, bk, e. auto. }
    exists nd, nd'. repeat split; auto. congruence.
Qed.

(** hence a lookup with the memoised key by any thread, after any such schedule, is a hit that
    returns exactly the memoised value edges, denoting the memoised values *)
Theorem xhit_memo : forall sched s s1 b bk e tid s2 r,
  XInv s -> nth_error (ct_b s) b = Some bk -> tb_ent bk = Some e ->
  Forall (quiet b) sched -> xrun false s sched = Some s1 ->
  xstep false s1 (XLookup tid b (te_args e)) = Some (s2, r) ->
  r = XRhit (te_vals e) /\
  (forall x, In x (te_vals e) ->
     exists nd nd', tfind (ct_tt s) x = Some nd /\ tfind (ct_tt s2) x = Some nd' /\ tn_val nd' = tn_val nd).
Proof.
  intros sched s s1 b bk e tid s2 r I NB EN Q H L.
  destruct (xrun_entry_memo _ _ _ _ _ _ I NB EN Q H) as (I1 & (bk1 & N1 & E1) & V).
  assert (R : r = XRhit (te_vals e)).
  { simpl in L. rewrite N1 in L. destruct (held_by (tb_lock bk1) tid); [|discriminate].
    rewrite E1 in L.
    assert (IE : ids_eqb (te_args e) (te_args e) = true).
    { clear. induction (te_args e) as [|x l IHl]; simpl; auto. rewrite N.eqb_refl. auto. }
    rewrite IE in L. destruct (retain_vals tid (te_vals e) (ct_tt s1) (ct_own s1)). inversion L; reflexivity. }
  split; auto. subst r.
  destruct (xhit_valid _ _ _ _ _ _ I1 L) as (_ & _ & HV).
  intros x J. destruct (HV x J) as (_ & nd1 & nd2 & F1 & F2 & EV2 & _).
  destruct (V x) as (nd & nd1' & F & F1' & EV1); [unfold te_ids; apply in_or_app; auto|].
  exists nd, nd2. repeat split; auto. congruence.
Qed.

(** ** the lifted end state of a parallel block: what [tinv_b] says about a snapshot *)
Lemma owners_of_nat : forall refs x, N.to_nat (N.of_nat (xowners refs x)) = xowners refs x.
Proof. intros. apply Nat2N.id. Qed.

Lemma tfind_lift : forall terms refs x nd,
  tfind (map (fun p : N * N => (fst p, mkTN (snd p) (N.of_nat (xowners refs (fst p))))) terms) x = Some nd ->
  tn_rc nd = N.of_nat (xowners refs x).
Proof.
  induction terms as [|[i v] r IH]; simpl; intros refs x nd H; [discriminate|].
  destruct (N.eqb_spec i x); [inversion H; subst; reflexivity | eauto].
Qed.

Theorem lift_terms_inv : forall terms refs nb,
  NoDup (map fst terms) -> NoDup (map snd terms) ->
  (forall o, In o refs -> In (snd o) (map fst terms)) ->
  XInv (lift_terms terms refs nb).
Proof.
  intros terms refs nb A B C. unfold lift_terms.
  set (tt := map (fun p : N * N => (fst p, mkTN (snd p) (N.of_nat (xowners refs (fst p))))) terms).
  assert (F1 : map fst tt = map fst terms) by (unfold tt; rewrite map_map; reflexivity).
  assert (F2 : map tvalf tt = map snd terms) by (unfold tt; rewrite map_map; reflexivity).
  constructor; simpl.
  - rewrite F1. assumption.
  - rewrite F2. assumption.
  - constructor.
  - intros x [].
  - intros x nd F. rewrite (tfind_lift _ _ _ _ F). apply Nat2N.id.
  - intros o J. apply C in J. rewrite <- F1 in J.
    destruct (stored_b tt (snd o)) eqn:S; [reflexivity|]. apply stored_b_false in S.
    apply tfind_none_iff in S. contradiction.
  - intros b bk e x N1 N2. apply nth_error_In, repeat_spec in N1. subst. discriminate.
  - intros b bk _ Cc. discriminate.
Qed.

(** the invariant, clause by clause *)
Theorem XInv_flat : forall s,
  XInv s <->
  (NoDup (map fst (ct_tt s)) /\
   NoDup (map (fun p => tn_val (snd p)) (ct_tt s)) /\
   NoDup (ct_free s) /\
   (forall x, In x (ct_free s) -> tfind (ct_tt s) x = None) /\
   (forall x nd, tfind (ct_tt s) x = Some nd -> N.to_nat (tn_rc nd) = xowners (ct_own s) x) /\
   (forall o, In o (ct_own s) -> stored_b (ct_tt s) (snd o) = true) /\
   (forall b bk e x, nth_error (ct_b s) b = Some bk -> tb_ent bk = Some e ->
                     In x (te_args e ++ te_vals e) -> stored_b (ct_tt s) x = true) /\
   (forall b bk, nth_error (ct_b s) b = Some bk -> claimed_b (ct_ph s) (ct_next s) b = true ->
                 tb_ent bk = None /\ tb_lock bk = LCollector)).
Proof.
  intros s. split.
  - intros [A B C D E F G H]. repeat split; auto; apply (H b bk); assumption.
  - intros (A & B & C & D & E & F & G & H). constructor; auto.
Qed.
