(** * STORECONC — lemmas for the composed model Mgr/Core.v: tokens with handle variables project to
      Conc's tokens, the hash-table edge list, two edge values on one node give a stored count >= 2,
      and the central one: releasing a list of edge values in the store ([release_all], never a last
      edge) is [dec_children] on Conc's table ([release_all_agree]). *)

From Coq Require Import List NArith ZArith PArith Bool Arith Lia FMapPositive Permutation.
From OxiVerif Require Import DD.Table Mgr.Alloc Tbl.RcStore Mgr.IndexStore Mgr.IndexStoreProofs
  Mgr.Conc Mgr.ConcBase Mgr.Core.
Import ListNotations.

Arguments N.add : simpl never.
Arguments N.sub : simpl never.

Notation RcInv := (RcStore.AInv N N.eqb).

Lemma F2_impl_in {A B} (P Q : A -> B -> Prop) l1 l2 :
  (forall a b, In a l1 -> In b l2 -> P a b -> Q a b) -> Forall2 P l1 l2 -> Forall2 Q l1 l2.
Proof.
  intros H F. induction F; constructor.
  - apply H; [left; reflexivity | left; reflexivity | assumption].
  - apply IHF. intros a b Ha Hb. apply H; right; assumption.
Qed.

(** ** tokens *)

Lemma take_tok3_proj x l :
  take_tok x (map fst l) = match take_tok3 x l with Some (_, r) => Some (map fst r) | None => None end.
Proof.
  induction l as [|[y h] r IH]; cbn [map take_tok take_tok3 fst]; [reflexivity|].
  destruct (tok_eqb x y); [reflexivity|]. rewrite IH. destruct (take_tok3 x r) as [[h' r']|]; reflexivity.
Qed.

Lemma take_toks3_proj tid ch : forall l,
  take_toks tid ch (map fst l) =
  match take_toks3 tid ch l with Some (_, r) => Some (map fst r) | None => None end.
Proof.
  induction ch as [|e r IH]; intros l; cbn [take_toks take_toks3]; [reflexivity|].
  destruct (eref e) as [x|id]; [apply IH|].
  rewrite take_tok3_proj. destruct (take_tok3 (tid, e) l) as [[h l1]|]; [|reflexivity].
  rewrite IH. destruct (take_toks3 tid r l1) as [[hs l2]|]; reflexivity.
Qed.

Lemma take_tok3_perm x l h r : take_tok3 x l = Some (h, r) -> Permutation l ((x, h) :: r).
Proof.
  revert h r. induction l as [|[y g] l IH]; intros h r H; cbn [take_tok3] in H; [discriminate|].
  destruct (tok_eqb x y) eqn:E.
  - apply tok_eqb_eq in E. subst y. inversion H; subst. apply Permutation_refl.
  - destruct (take_tok3 x l) as [[h' r']|]; [|discriminate]. inversion H; subst.
    eapply perm_trans; [apply perm_skip; apply IH; reflexivity | apply perm_swap].
Qed.

Lemma take_toks3_perm tid ch : forall l hs r, take_toks3 tid ch l = Some (hs, r) ->
  Permutation (map snd l) (hs ++ map snd r) /\ (forall y, In y r -> In y l) /\
  Forall2 (fun h j => exists e, eref e = RN j /\ In (tid, e, h) l) hs (inner_ids ch).
Proof.
  induction ch as [|e ch IH]; intros l hs r H; cbn [take_toks3 inner_ids] in *.
  - inversion H; subst. split; [apply Permutation_refl|]. split; [auto | constructor].
  - destruct (eref e) as [x|id] eqn:Er; [apply IH; exact H|].
    destruct (take_tok3 (tid, e) l) as [[h l1]|] eqn:E1; [|discriminate].
    destruct (take_toks3 tid ch l1) as [[hs2 l2]|] eqn:E2; [|discriminate]. injection H as <- <-.
    pose proof (take_tok3_perm _ _ _ _ E1) as P1. destruct (IH _ _ _ E2) as (P2 & I2 & F2).
    assert (Hin1 : forall y, In y l1 -> In y l).
    { intros y Hy. eapply Permutation_in; [apply Permutation_sym; exact P1 | right; exact Hy]. }
    split; [|split].
    + eapply perm_trans; [apply Permutation_map; exact P1|]. cbn [map snd app]. apply perm_skip. exact P2.
    + intros y Hy. apply Hin1, I2, Hy.
    + constructor.
      * exists e. split; [exact Er|]. eapply Permutation_in; [apply Permutation_sym; exact P1 | left; reflexivity].
      * eapply F2_impl_in; [|exact F2]. intros a b _ _ (e' & Ee & Hi). exists e'. split; [exact Ee | apply Hin1; exact Hi].
Qed.

(** ** the hash-table edges *)

Lemma hfind_In id hd h : hfind id hd = Some h -> In (id, h) hd.
Proof.
  induction hd as [|[i g] r IH]; cbn [hfind]; [discriminate|].
  destruct (Pos.eqb_spec i id) as [->|Hne]; [intros H; inversion H; left; reflexivity | intros H; right; auto].
Qed.

Lemma hfind_None id hd : hfind id hd = None <-> ~ In id (map fst hd).
Proof.
  induction hd as [|[i g] r IH]; cbn [hfind map In fst]; [tauto|].
  destruct (Pos.eqb_spec i id) as [->|Hne]; [split; [discriminate | tauto]|]. rewrite IH. tauto.
Qed.

Lemma In_hfind id hd h : NoDup (map fst hd) -> In (id, h) hd -> hfind id hd = Some h.
Proof.
  induction hd as [|[i g] r IH]; cbn [hfind map In fst]; [tauto|]. intros Hnd [E|Hin].
  - inversion E; subst. rewrite Pos.eqb_refl. reflexivity.
  - inversion Hnd; subst. destruct (Pos.eqb_spec i id) as [->|Hne]; [|auto].
    exfalso. apply H1. apply in_map_iff. exists (id, h). auto.
Qed.

Lemma hremove_perm id hd h : hfind id hd = Some h -> Permutation hd ((id, h) :: hremove id hd).
Proof.
  induction hd as [|[i g] r IH]; cbn [hfind hremove]; [discriminate|].
  destruct (Pos.eqb_spec i id) as [->|Hne]; intros H.
  - inversion H; subst. apply Permutation_refl.
  - eapply perm_trans; [apply perm_skip; apply IH; exact H | apply perm_swap].
Qed.

Lemma hfind_hremove id hd j : NoDup (map fst hd) ->
  hfind j (hremove id hd) = if Pos.eqb id j then None else hfind j hd.
Proof.
  induction hd as [|[i g] r IH]; cbn [hfind hremove map fst]; intros Hnd.
  - destruct (Pos.eqb id j); reflexivity.
  - inversion Hnd; subst. destruct (Pos.eqb_spec i id) as [->|Hne].
    + destruct (Pos.eqb_spec id j) as [->|Hne2]; [apply hfind_None; exact H1 | reflexivity].
    + cbn [hfind]. rewrite IH by exact H2. destruct (Pos.eqb_spec i j) as [->|Hne2]; [|reflexivity].
      destruct (Pos.eqb_spec id j); [congruence | reflexivity].
Qed.

(** ** two distinct edge values on one node: stored count >= 2 *)

Lemma acount_ge2 (hs : list (nat * N)) h g v :
  NoDup (map fst hs) -> afind h hs = Some v -> afind g hs = Some v -> h <> g ->
  (2 <= acount N N.eqb v hs)%nat.
Proof.
  intros Hnd Hh Hg Hne.
  rewrite (aremove_acount N N.eqb h hs v v Hnd Hh), N.eqb_refl.
  assert (1 <= acount N N.eqb v (aremove h hs))%nat; [|lia].
  apply (acount_pos N N.eqb N.eqb_eq). exists g. apply (afind_In N).
  rewrite afind_aremove. destruct (Nat.eqb_spec h g); [contradiction | exact Hg].
Qed.

(** ** agreement of the two count fields *)

Definition Agree (nodes : nmap) (cn : ctable) : Prop :=
  (forall id nd, cfind cn id = Some nd -> exists p, nget nodes (Npos id) = Some (p, crc nd + 1)%N) /\
  (forall j, nget nodes j <> None -> exists id, j = Npos id /\ cfind cn id <> None).

Definition dec_ids (cn : ctable) (js : list positive) : ctable := fold_left (fun t j => rc_dec j t) js cn.

Lemma dec_children_ids ch : forall cn, dec_children cn ch = dec_ids cn (inner_ids ch).
Proof.
  induction ch as [|e r IH]; intros cn; cbn [dec_children inner_ids]; [reflexivity|].
  unfold dec_ref. destruct (eref e) as [x|id]; [apply IH|]. rewrite IH. reflexivity.
Qed.

Lemma agree_update nodes cn id nd p (f : N -> N) x :
  Agree nodes cn -> cfind cn id = Some nd -> x = (f (crc nd) + 1)%N ->
  Agree (nset nodes (Npos id) (p, x)) (rc_upd f id cn).
Proof.
  intros [A1 A2] Hf ->. split.
  - intros j nd' Hj. rewrite cfind_rc_upd in Hj. rewrite nget_nset.
    destruct (Pos.eqb_spec j id) as [->|Hne].
    + rewrite Hf in Hj. cbn [option_map] in Hj. injection Hj as <-. rewrite N.eqb_refl. cbn [crc set_rc]. eauto.
    + destruct (N.eqb_spec (Npos id) (Npos j)) as [E|_]; [inversion E; congruence|]. apply A1. exact Hj.
  - intros j Hj. rewrite nget_nset in Hj. destruct (N.eqb_spec (Npos id) j) as [E|Hne].
    + subst j. exists id. split; [reflexivity|]. rewrite cfind_rc_upd, Pos.eqb_refl, Hf. discriminate.
    + destruct (A2 j Hj) as (i & Ei & Hi). exists i. split; [exact Ei|]. rewrite cfind_rc_upd.
      destruct (Pos.eqb i id); [|exact Hi]. destruct (cfind cn i); [discriminate | congruence].
Qed.

(** releasing the edge values [hs] (targets [js]; for each one another edge value [g] on the same
    node stays: the table's own edge) never meets a last edge and is [rc_dec] of the targets *)
Lemma release_all_agree hs : forall js s cn,
  RcInv (iabs s) -> Agree (i_nodes s) cn -> NoDup hs ->
  Forall2 (fun h j => afind h (i_hs s) = Some (Npos j) /\
                      exists g, ~ In g hs /\ afind g (i_hs s) = Some (Npos j)) hs js ->
  exists s1, release_all s hs = Some (s1, false) /\ RcInv (iabs s1) /\ Agree (i_nodes s1) (dec_ids cn js).
Proof.
  induction hs as [|h hs IH]; intros js s cn HR HA Hnd HF.
  - inversion HF; subst. exists s. cbn. auto.
  - inversion HF as [|? j ? js' [Hh (g & Hg & Hgf)] HF']; subst. inversion Hnd; subst.
    pose proof (AInv_live N N.eqb N.eqb_eq _ _ _ HR Hh) as Hlive. cbn [iabs a_map a_hs] in Hlive.
    destruct HA as [A1 A2]. destruct (A2 _ Hlive) as (j' & Ej & Hc). injection Ej as <-.
    destruct (cfind cn j) as [nd|] eqn:Hcf; [clear Hc | congruence].
    destruct (A1 _ _ Hcf) as [p Hn].
    assert (Hrc : (2 <= crc nd + 1)%N).
    { destruct HR as [HR1 HR2]. specialize (HR2 (Npos j)). cbn [iabs a_map a_hs] in HR2. rewrite Hn in HR2.
      destruct HR2 as [E _]. rewrite E.
      assert (2 <= acount N N.eqb (Npos j) (i_hs s))%nat; [|lia].
      apply (acount_ge2 _ h g); auto. intros ->. apply Hg. left. reflexivity. }
    assert (E1 : release1 s h = Some (mkI (i_al s) (nset (i_nodes s) (Npos j) (p, crc nd + 1 - 1)%N)
                                          (aremove h (i_hs s)) (aremove h (i_own s)), false)).
    { unfold release1. rewrite Hh, Hn. f_equal. f_equal. apply N.leb_gt. lia. }
    set (s1 := mkI (i_al s) (nset (i_nodes s) (Npos j) (p, crc nd + 1 - 1)%N) (aremove h (i_hs s)) (aremove h (i_own s))) in *.
    assert (HR1 : RcInv (iabs s1)).
    { eapply (astep_inv N N.eqb N.eqb_eq); [exact HR | apply release1_astep; exact E1]. }
    assert (HA1 : Agree (i_nodes s1) (rc_dec j cn)).
    { unfold s1, rc_dec. cbn [i_nodes]. eapply agree_update; [split; eauto | exact Hcf | lia]. }
    destruct (IH js' s1 (rc_dec j cn) HR1 HA1 H2) as (s2 & E2 & HR2 & HA2).
    { eapply F2_impl_in; [|exact HF']. intros a b Ha _ (Ha1 & g' & Hg' & Hg'f).
      unfold s1. cbn [i_hs]. rewrite !afind_aremove.
      destruct (Nat.eqb_spec h a) as [->|_]; [contradiction|]. split; [exact Ha1|].
      exists g'. split; [intro; apply Hg'; right; assumption|]. rewrite afind_aremove.
      destruct (Nat.eqb_spec h g') as [->|_]; [exfalso; apply Hg'; left; reflexivity | exact Hg'f]. }
    exists s2. cbn [release_all]. rewrite E1, E2. cbn [orb]. split; [reflexivity|]. split; [exact HR2|].
    cbn [dec_ids fold_left]. exact HA2.
Qed.

(** [map IRelease] as a script = [release_all] *)
Lemma irun_releases c rest hs : forall s s1,
  release_all s hs = Some (s1, false) -> (forall h, In h hs -> afind h (i_own s) = None) ->
  irun c s (map IRelease hs ++ rest) =
  match irun c s1 rest with
  | Some (s2, rs2) => Some (s2, map (fun _ => IRReleased false) hs ++ rs2)
  | None => None
  end.
Proof.
  induction hs as [|h hs IH]; intros s s1 H Hown; cbn [release_all map app] in *.
  - inversion H; subst. destruct (irun c s1 rest) as [[s2 rs2]|]; reflexivity.
  - destruct (release1 s h) as [[sa lk]|] eqn:E1; [|discriminate].
    destruct (release_all sa hs) as [[sb lk2]|] eqn:E2; [|discriminate]. inversion H; subst sb.
    apply orb_false_elim in H2. destruct H2 as [-> ->].
    destruct (release1_spec _ _ _ _ E1) as (id & p & rc & Hf & Hn & Esa & _).
    cbn [irun istep]. unfold client_h. unfold bound at 1. rewrite Hf. unfold bound. rewrite (Hown h (or_introl eq_refl)).
    cbn [andb negb]. rewrite E1. rewrite (IH sa s1 E2).
    + destruct (irun c s1 rest) as [[s2 rs2]|]; reflexivity.
    + intros h' Hh'. rewrite Esa. cbn [i_own]. rewrite afind_aremove.
      destruct (h =? h')%nat; [reflexivity | apply Hown; right; exact Hh'].
Qed.

Lemma Forall2_length_eq {A B} (P : A -> B -> Prop) l1 l2 : Forall2 P l1 l2 -> length l1 = length l2.
Proof. induction 1; cbn; congruence. Qed.
