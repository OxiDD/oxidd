(** * STORECONC — a concrete run of the composed model Mgr/Core.v (capacity 6, chunk size 2,
      2 terminals: slot ids 2..7; threads 0 (guard) and 1 (worker), collector thread 2; BDD, 4
      levels): every action (KNot is BCDD-only), a `get_or_insert` that finds another thread's
      node, child edges moved into nodes, a full store: OutOfMemory releases the two consumed child
      edges, a collector step that keeps a referenced node and one that removes a dead one (its two
      child edges are released, the slot goes back to the allocator), the collector's epilogue,
      and the retry that re-uses the freed slot 6.  The hypotheses of Mgr/CoreThms.v are
      satisfiable: the end state is [kreachable], hence [KInv]; [klink_b] agrees. *)

From Coq Require Import List NArith ZArith PArith Bool Arith.
From OxiVerif Require Import DD.Table Mgr.Alloc Mgr.AllocExamples Tbl.RcStore Mgr.IndexStore Mgr.IndexStoreProofs
  Mgr.Conc Mgr.ConcGc Mgr.Core Mgr.CoreProofs Mgr.CoreThms.
Import ListNotations.

Definition kx_terms : list (N * N) := [(0%N, 0%N); (1%N, 1%N)].
Definition KT0 : edge := mkEdge (RT 0) false.
Definition KT1 : edge := mkEdge (RT 1) false.
Definition KE (i : positive) : edge := mkEdge (RN i) false.

Definition kx_sched : list kact :=
  [KInternal (APrepare 0); KInternal (ABind 1); KInternal (ABind 2);
   KGoi 0 3 [KT1; KT0];               (* thread 0 creates node 2 *)
   KGoi 1 3 [KT1; KT0];               (* thread 1 finds it *)
   KGoi 1 3 [KT0; KT1];               (* node 4 *)
   KRetain 0 (KE 2); KRetain 1 (KE 4); KMove 1 0 (KE 4);
   KGoi 0 2 [KE 2; KE 4];             (* node 3, two edge values move into it *)
   KGoi 1 2 [KE 4; KE 2];             (* node 5 *)
   KRetain 0 (KE 3); KRetain 0 (KE 5); KMove 1 0 (KE 5);
   KGoi 0 1 [KE 3; KE 5];             (* node 6 *)
   KRetain 0 (KE 3);
   KGoi 0 1 [KE 5; KE 3];             (* node 7: all 6 slots hold nodes *)
   KRetain 0 (KE 6); KRetain 0 (KE 7);
   KGoi 0 0 [KE 6; KE 7];             (* OutOfMemory: the two child edges are released *)
   KRelease 0 (KE 6);                 (* node 6 is dead now *)
   KGc 2 7;                           (* kept: thread 0 holds an edge *)
   KGc 2 6;                           (* removed: its edges to 3 and 5 are released, slot 6 freed *)
   KInternal (AGcFlush 2);            (* the collector hands its list to the shared state *)
   KGoi 0 0 [KT0; KT1]].              (* the retry succeeds in slot 6 *)

Definition kx_results : list kres :=
  [KRObs (OPrep true); KRObs OUnit; KRObs OUnit; KRNew 2; KRFound 2; KRNew 4; KRUnit; KRUnit; KRUnit;
   KRNew 3; KRNew 5; KRUnit; KRUnit; KRUnit; KRNew 6; KRUnit; KRNew 7; KRUnit; KRUnit; KROom; KRUnit;
   KRKept; KRRemoved; KRObs (OFlush 6); KRNew 6].

Definition kx_store_results : list ires :=
  [IRObs (OPrep true); IRObs OUnit; IRObs OUnit; IRAdded 2 PSharedChunk; IRCount 3; IRAdded 4 PSharedChunk;
   IRCount 4; IRCount 3; IRAdded 3 PLocalRange; IRAdded 5 PLocalRange; IRCount 3; IRCount 3;
   IRAdded 6 PSharedBump; IRCount 4; IRAdded 7 PSharedBump; IRCount 3; IRCount 3; IROom false;
   IRReleased false; IRKept 2; IRRemoved 1 [12; 11] false; IRObs (OFlush 6); IRAdded 6 PSharedList].

Theorem kx_run :
  exists s, krun KBdd kx_terms 4 ex_cfg (kinit ex_cfg 3) kx_sched = Some (s, kx_results, kx_store_results) /\
    kreachable KBdd kx_terms 4 ex_cfg s /\ KInv KBdd kx_terms 4 ex_cfg s /\ klink_b s = true /\
    cinv_b KBdd kx_terms 4 (kproj s) = true /\ iinv_b ex_cfg (k_i s) = true /\
    no_leak kx_store_results = true /\
    map fst (k_cn s) = [6; 7; 5; 3; 4; 2]%positive /\
    map (fun p => crc (snd p)) (k_cn s) = [1; 1; 1; 2; 2; 3]%N /\
    map (nget (i_nodes (k_i s))) [2; 3; 4; 5; 6; 7]%N =
      [Some (3, 4); Some (2, 3); Some (3, 3); Some (2, 2); Some (0, 2); Some (1, 2)]%N /\
    Conc.run KBdd kx_terms 4 cempty (kacts_list kx_sched kx_results) = Some (kproj s).
Proof.
  destruct (krun KBdd kx_terms 4 ex_cfg (kinit ex_cfg 3) kx_sched) as [[[s xs] rs]|] eqn:E; [|vm_compute in E; discriminate].
  pose proof E as E0. vm_compute in E0. injection E0 as Es <- <-.
  assert (Hre : kreachable KBdd kx_terms 4 ex_cfg s).
  { exists 3%nat, kx_sched, kx_results, kx_store_results. destruct ex_cfg_ok. auto. }
  exists s. split; [reflexivity|]. split; [exact Hre|]. split; [apply kreachable_inv; exact Hre|].
  subst s. repeat split; vm_compute; reflexivity.
Qed.

(** the failed call, in detail: in the state before it all 6 slots hold table entries; afterwards
    the table has the same entries, the two consumed child edges are gone and nodes 6 and 7 have
    lost one reference each *)
Theorem kx_oom :
  exists s s', krun KBdd kx_terms 4 ex_cfg (kinit ex_cfg 3) (firstn 19 kx_sched) = Some (s, firstn 19 kx_results, firstn 17 kx_store_results) /\
    kstep KBdd kx_terms 4 ex_cfg s (KGoi 0 0 [KE 6; KE 7]) = Some (s', KROom, [IROom false]) /\
    length (k_cn s) = 6 /\ map fst (k_cn s') = map fst (k_cn s) /\ k_hd s' = k_hd s /\
    map (fun p => crc (snd p)) (k_cn s) = [2; 2; 2; 3; 2; 3]%N /\
    map (fun p => crc (snd p)) (k_cn s') = [1; 1; 2; 3; 2; 3]%N /\
    length (k_tok s) = 6 /\ length (k_tok s') = 4.
Proof.
  do 2 eexists. split; [vm_compute; reflexivity|].
  split; [vm_compute; reflexivity|]. vm_compute. repeat split; reflexivity.
Qed.

(** a whole collection by thread 2 ([kcollect]) instead of the two single steps: node 6 leaves, the
    projection is [collect] of Mgr/ConcGc.v on the projection, the retry succeeds *)
Theorem kx_collect :
  exists s, krun KBdd kx_terms 4 ex_cfg (kinit ex_cfg 3) (firstn 21 kx_sched) = Some (s, firstn 21 kx_results, firstn 19 kx_store_results) /\
    let s1 := kcollect KBdd kx_terms 4 ex_cfg 2 s in
    kproj s1 = collect KBdd kx_terms 4 (kproj s) /\ map fst (k_cn s1) = [7; 5; 3; 4; 2]%positive /\
    klink_b s1 = true /\ iinv_b ex_cfg (k_i s1) = true /\
    option_map (fun x => snd (fst x))
      (krun KBdd kx_terms 4 ex_cfg s1 [KInternal (AGcFlush 2); KGoi 0 0 [KT0; KT1]]) = Some [KRObs (OFlush 6); KRNew 6].
Proof.
  eexists. split; [vm_compute; reflexivity|]. vm_compute. repeat split; reflexivity.
Qed.
