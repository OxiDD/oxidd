(** * STORECONC — the link between the two components of Mgr/Core.v ([KLinkP]) and its preservation
      by the five ways in which an action changes the store: edge values of tokens are released
      ([link_release]), an edge value is cloned ([link_retain]), a token changes hands / tag
      ([link_retoken]), a node is added with child edges moved into it ([link_add]), a node is
      removed and its child edges are released ([link_remove]). *)

From Coq Require Import List NArith ZArith PArith Bool Arith Lia FMapPositive Permutation.
From OxiVerif Require Import Base.ListFacts DD.Table Mgr.Alloc Tbl.RcStore Mgr.IndexStore Mgr.IndexStoreProofs
  Mgr.Conc Mgr.ConcBase Mgr.Core Mgr.CoreBase.
Import ListNotations.

Arguments N.add : simpl never.
Arguments N.sub : simpl never.

Record KLinkP (hs own : list (nat * N)) (nodes : nmap) (cn : ctable) (tok : list ktoken)
              (hd : list (positive * nat)) : Prop := mkKL {
  (* one hash-table edge per stored node *)
  kl_dom : forall id, cfind cn id <> None <-> hfind id hd <> None;
  (* it points to the node and is held by a client (not inside a node) *)
  kl_hd : forall id ht, In (id, ht) hd -> afind ht hs = Some (Npos id) /\ afind ht own = None;
  kl_hdnd : NoDup (map fst hd);
  (* a token is an inner edge; its edge value points to that node and is held by a client *)
  kl_tok : forall x, In x tok ->
    exists id, eref (snd (fst x)) = RN id /\ afind (snd x) hs = Some (Npos id) /\ afind (snd x) own = None;
  (* all these edge values are different variables *)
  kl_nd : NoDup (map snd hd ++ map snd tok);
  (* stored count = reported count + 1; the store holds exactly the table's nodes *)
  kl_agree : Agree nodes cn;
  (* the edge values inside a node are its inner child edges, in order *)
  kl_kids : forall id nd, cfind cn id = Some nd ->
    map (fun h => afind h hs) (kids_of (Npos id) own) = map (fun j => Some (Npos j)) (inner_ids (cch nd))
}.

Definition KLink (s : kst) : Prop :=
  KLinkP (i_hs (k_i s)) (i_own (k_i s)) (i_nodes (k_i s)) (k_cn s) (k_tok s) (k_hd s).

(** ** small facts *)

Lemma nodup_disj {A} (a b : list A) x : NoDup (a ++ b) -> In x a -> In x b -> False.
Proof.
  induction a as [|y a IH]; cbn; [tauto|]. intros H [->|Ha] Hb; inversion H; subst.
  - apply H2. apply in_or_app. right. exact Hb.
  - apply IH; assumption.
Qed.

Lemma nodup_drop_mid {A} (a b c : list A) : NoDup (a ++ b ++ c) -> NoDup (a ++ c).
Proof.
  induction a as [|y a IH]; cbn; intros H.
  - eapply NoDup_app_r; exact H.
  - inversion H; subst. constructor; [|auto]. intros Hin. apply H2. apply in_app_or in Hin.
    apply in_or_app. destruct Hin; [left; assumption | right; apply in_or_app; right; assumption].
Qed.

Lemma afind_cons_fresh (hs : list (nat * N)) k h1 v :
  afind k hs <> None -> afind h1 hs = None -> afind k ((h1, v) :: hs) = afind k hs.
Proof. intros Hk H1. cbn [afind]. destruct (Nat.eqb_spec h1 k) as [->|_]; [congruence | reflexivity]. Qed.

Lemma own_bound i k : OwnOK i -> afind k (i_own i) <> None -> afind k (i_hs i) <> None.
Proof.
  intros [_ HO] H. destruct (afind k (i_own i)) as [pid|] eqn:E; [|congruence].
  apply (afind_In N) in E. apply (HO _ _ E).
Qed.

Lemma kid_bound i k p : OwnOK i -> In k (kids_of p (i_own i)) -> afind k (i_own i) <> None /\ afind k (i_hs i) <> None.
Proof.
  intros HO H. apply In_kids_iff in H. assert (afind k (i_own i) <> None) by (eapply In_afind_some; eauto).
  split; [assumption | apply own_bound; assumption].
Qed.

Lemma rm_all_unbound cs : forall l : list (nat * N), (forall h, In h cs -> afind h l = None) -> rm_all cs l = l.
Proof.
  induction cs as [|c r IH]; intros l H; cbn [rm_all]; [reflexivity|].
  rewrite (aremove_notin N) by (apply (afind_None N); apply H; left; reflexivity).
  apply IH. intros h Hh. apply H. right. exact Hh.
Qed.

Lemma cfind_dec_children_some ch cn id nd' : cfind (dec_children cn ch) id = Some nd' ->
  exists nd, cfind cn id = Some nd /\ cch nd' = cch nd /\ cl nd' = cl nd.
Proof.
  rewrite cfind_dec_children. destruct (cfind cn id) as [nd|]; cbn [option_map]; [|discriminate].
  intros H. inversion H; subst. exists nd. auto.
Qed.

Lemma cfind_rc_upd_some f j cn id nd' : cfind (rc_upd f j cn) id = Some nd' ->
  exists nd, cfind cn id = Some nd /\ cch nd' = cch nd /\ cl nd' = cl nd.
Proof.
  rewrite cfind_rc_upd. destruct (Pos.eqb id j); [|eauto].
  destruct (cfind cn id) as [nd|]; cbn [option_map]; [|discriminate]. intros H. inversion H; subst. exists nd. auto.
Qed.

Lemma cfind_rc_upd_dom f j cn id : cfind (rc_upd f j cn) id <> None <-> cfind cn id <> None.
Proof.
  rewrite cfind_rc_upd. destruct (Pos.eqb id j); [|tauto]. destruct (cfind cn id); cbn; split; congruence.
Qed.

Lemma cfind_dec_children_dom ch cn id : cfind (dec_children cn ch) id <> None <-> cfind cn id <> None.
Proof. rewrite cfind_dec_children. destruct (cfind cn id); cbn; split; congruence. Qed.

(** the node a bound edge value points to is stored and has its hash-table edge *)
Lemma link_guard i cn tok hd h j :
  RcInv (iabs i) -> KLinkP (i_hs i) (i_own i) (i_nodes i) cn tok hd -> afind h (i_hs i) = Some (Npos j) ->
  exists nd g, cfind cn j = Some nd /\ hfind j hd = Some g /\ afind g (i_hs i) = Some (Npos j) /\ afind g (i_own i) = None.
Proof.
  intros HR L Hh. pose proof (AInv_live N N.eqb N.eqb_eq _ _ _ HR Hh) as Hlive. cbn [iabs a_map] in Hlive.
  destruct (proj2 (kl_agree _ _ _ _ _ _ L) _ Hlive) as (j' & E & Hc). injection E as <-.
  destruct (cfind cn j) as [nd|] eqn:Hcf; [|congruence].
  assert (Hd : hfind j hd <> None) by (apply (kl_dom _ _ _ _ _ _ L); congruence).
  destruct (hfind j hd) as [g|] eqn:Hg; [|congruence].
  destruct (kl_hd _ _ _ _ _ _ L _ _ (hfind_In _ _ _ Hg)) as [A B]. exists nd, g. auto.
Qed.

Lemma toks_facts i cn tok hd tid ch hts tok1 :
  KLinkP (i_hs i) (i_own i) (i_nodes i) cn tok hd -> take_toks3 tid ch tok = Some (hts, tok1) ->
  NoDup (map snd hd ++ hts ++ map snd tok1) /\ (forall y, In y tok1 -> In y tok) /\
  (forall h, In h hts -> afind h (i_own i) = None) /\ (forall h, In h hts -> afind h (i_hs i) <> None) /\
  map (fun h => afind h (i_hs i)) hts = map (fun j => Some (Npos j)) (inner_ids ch).
Proof.
  intros L HT. destruct (take_toks3_perm _ _ _ _ _ HT) as (P & I2 & F2).
  assert (Hnd2 : NoDup (map snd hd ++ hts ++ map snd tok1)).
  { eapply Permutation_NoDup; [|apply (kl_nd _ _ _ _ _ _ L)]. apply Permutation_app_head. exact P. }
  assert (Htk : forall h, In h hts -> exists x, In x tok /\ snd x = h).
  { intros h Hh. assert (Hin : In h (map snd tok)).
    { eapply Permutation_in; [apply Permutation_sym; exact P | apply in_or_app; left; exact Hh]. }
    apply in_map_iff in Hin. destruct Hin as (x & E & Hx). eauto. }
  split; [exact Hnd2|]. split; [exact I2|]. split; [|split].
  - intros h Hh. destruct (Htk h Hh) as (x & Hx & <-). destruct (kl_tok _ _ _ _ _ _ L x Hx) as (id & _ & _ & A). exact A.
  - intros h Hh. destruct (Htk h Hh) as (x & Hx & <-). destruct (kl_tok _ _ _ _ _ _ L x Hx) as (id & _ & A & _). congruence.
  - clear - L F2. induction F2 as [|h j hs' js' (e & Ee & Hin) F IH]; cbn [map]; [reflexivity|]. f_equal; [|exact IH].
    destruct (kl_tok _ _ _ _ _ _ L _ Hin) as (id & Eid & Hf & _). cbn [fst snd] in *. congruence.
Qed.

(** the table's edge value of a stored node is a client's edge value to a node with a payload *)
Lemma hd_stored i cn tok hd id ht : KLinkP (i_hs i) (i_own i) (i_nodes i) cn tok hd -> hfind id hd = Some ht ->
  afind ht (i_hs i) = Some (Npos id) /\ afind ht (i_own i) = None /\ exists p rc, nget (i_nodes i) (Npos id) = Some (p, rc).
Proof.
  intros L H. destruct (kl_hd _ _ _ _ _ _ L _ _ (hfind_In _ _ _ H)) as [A B]. split; [exact A|]. split; [exact B|].
  assert (Hc : cfind cn id <> None) by (apply (kl_dom _ _ _ _ _ _ L); congruence).
  destruct (cfind cn id) as [nd|] eqn:E; [|congruence]. destruct (proj1 (kl_agree _ _ _ _ _ _ L) _ _ E) as [p Hp]. eauto.
Qed.

(** ** tokens are released *)
Lemma link_release i cn tok hd tid ch hts tok1 :
  RcInv (iabs i) -> OwnOK i -> KLinkP (i_hs i) (i_own i) (i_nodes i) cn tok hd ->
  take_toks3 tid ch tok = Some (hts, tok1) ->
  exists i1, release_all i hts = Some (i1, false) /\ i_al i1 = i_al i /\ RcInv (iabs i1) /\
    i_hs i1 = rm_all hts (i_hs i) /\ i_own i1 = i_own i /\
    (forall j, nget (i_nodes i1) j <> None <-> nget (i_nodes i) j <> None) /\
    KLinkP (i_hs i1) (i_own i1) (i_nodes i1) (dec_children cn ch) tok1 hd /\
    (forall h, In h hts -> afind h (i_own i) = None) /\ NoDup hts /\
    (forall h, In h hts -> afind h (i_hs i) <> None).
Proof.
  intros HR HO L HT. destruct (toks_facts _ _ _ _ _ _ _ _ L HT) as (Hnd2 & I2 & Hown & Hbnd & _).
  destruct (take_toks3_perm _ _ _ _ _ HT) as (_ & _ & F2).
  assert (Hnh : NoDup hts) by (eapply NoDup_app_l, NoDup_app_r; exact Hnd2).
  destruct (release_all_agree hts (inner_ids ch) i cn HR (kl_agree _ _ _ _ _ _ L) Hnh) as (i1 & E1 & HR1 & HA1).
  { eapply F2_impl_in; [|exact F2]. intros h j Hh _ (e & Ee & Hin).
    destruct (kl_tok _ _ _ _ _ _ L _ Hin) as (id & Eid & Hf & _). cbn [fst snd] in *. rewrite Ee in Eid. injection Eid as <-.
    split; [exact Hf|]. destruct (link_guard _ _ _ _ _ _ HR L Hf) as (nd & g & _ & Hg & Hgf & _).
    exists g. split; [|exact Hgf]. intros Hgin.
    apply (nodup_disj _ _ g Hnd2); [apply in_map_iff; exists (j, g); split; [reflexivity | apply hfind_In; exact Hg] | apply in_or_app; left; exact Hgin]. }
  destruct (release_all_spec _ _ _ E1) as (_ & Ea & Eh & Eo & Ed).
  assert (Eo' : i_own i1 = i_own i) by (rewrite Eo; apply rm_all_unbound; exact Hown).
  exists i1. split; [exact E1|]. split; [exact Ea|]. split; [exact HR1|]. split; [exact Eh|]. split; [exact Eo'|].
  split; [exact Ed|]. split; [|auto].
  rewrite Eh, Eo'. constructor.
  - intros id. rewrite cfind_dec_children_dom. apply (kl_dom _ _ _ _ _ _ L).
  - intros id ht Hin. destruct (kl_hd _ _ _ _ _ _ L _ _ Hin) as [A B]. split; [|exact B].
    rewrite afind_rm_all; [exact A|]. intros Hh.
    apply (nodup_disj _ _ ht Hnd2); [apply in_map_iff; exists (id, ht); auto | apply in_or_app; left; exact Hh].
  - apply (kl_hdnd _ _ _ _ _ _ L).
  - intros x Hx. destruct (kl_tok _ _ _ _ _ _ L x (I2 _ Hx)) as (id & A & B & C). exists id. split; [exact A|]. split; [|exact C].
    rewrite afind_rm_all; [exact B|]. intros Hh.
    apply (nodup_disj _ _ (snd x) (NoDup_app_r _ _ Hnd2)); [exact Hh | apply in_map; exact Hx].
  - eapply nodup_drop_mid; exact Hnd2.
  - rewrite dec_children_ids. exact HA1.
  - intros id nd' Hc. destruct (cfind_dec_children_some _ _ _ _ Hc) as (nd & Hc0 & -> & _).
    rewrite <- (kl_kids _ _ _ _ _ _ L _ _ Hc0). apply map_ext_in. intros k Hk.
    apply afind_rm_all. intros Hh. destruct (kid_bound _ _ _ HO Hk) as [A _]. apply A, Hown, Hh.
Qed.

(** ** an edge value is cloned *)
Lemma link_retain i cn tok hd id ht h1 p rc tid e :
  OwnOK i -> KLinkP (i_hs i) (i_own i) (i_nodes i) cn tok hd -> hfind id hd = Some ht ->
  afind h1 (i_hs i) = None -> nget (i_nodes i) (Npos id) = Some (p, rc) -> eref e = RN id ->
  KLinkP ((h1, Npos id) :: i_hs i) (i_own i) (nset (i_nodes i) (Npos id) (p, rc + 1)%N) (rc_inc id cn)
         ((tid, e, h1) :: tok) hd.
Proof.
  intros HO L Hht Hh1 Hn Ee.
  assert (Hd : cfind cn id <> None) by (apply (kl_dom _ _ _ _ _ _ L); congruence).
  destruct (cfind cn id) as [nd|] eqn:Hc; [clear Hd | congruence].
  destruct (proj1 (kl_agree _ _ _ _ _ _ L) _ _ Hc) as [p' Hn']. rewrite Hn in Hn'. injection Hn' as -> ->.
  assert (Hown1 : afind h1 (i_own i) = None).
  { destruct (afind h1 (i_own i)) eqn:E; [|reflexivity]. exfalso. apply (own_bound i h1 HO); congruence. }
  constructor.
  - intros j. unfold rc_inc. rewrite cfind_rc_upd_dom. apply (kl_dom _ _ _ _ _ _ L).
  - intros j g Hin. destruct (kl_hd _ _ _ _ _ _ L _ _ Hin) as [A B]. split; [|exact B].
    rewrite afind_cons_fresh; [exact A | congruence | exact Hh1].
  - apply (kl_hdnd _ _ _ _ _ _ L).
  - intros x [<-|Hx].
    + exists id. cbn [fst snd afind]. rewrite Nat.eqb_refl. auto.
    + destruct (kl_tok _ _ _ _ _ _ L x Hx) as (j & A & B & C). exists j. split; [exact A|]. split; [|exact C].
      rewrite afind_cons_fresh; [exact B | congruence | exact Hh1].
  - cbn [map snd]. apply (proj2 (NoDup_Add (Add_app h1 (map snd hd) (map snd tok)))).
    split; [apply (kl_nd _ _ _ _ _ _ L)|]. intros Hin. apply in_app_or in Hin. destruct Hin as [Hin|Hin]; apply in_map_iff in Hin; destruct Hin as (x & E & Hx).
    + destruct x as [j g]. cbn in E. subst g. destruct (kl_hd _ _ _ _ _ _ L _ _ Hx) as [A _]. congruence.
    + destruct (kl_tok _ _ _ _ _ _ L x Hx) as (j & _ & B & _). rewrite E in B. congruence.
  - unfold rc_inc. eapply agree_update; [apply (kl_agree _ _ _ _ _ _ L) | exact Hc | lia].
  - intros j nd' Hj. unfold rc_inc in Hj. destruct (cfind_rc_upd_some _ _ _ _ _ Hj) as (nd0 & Hj0 & -> & _).
    rewrite <- (kl_kids _ _ _ _ _ _ L _ _ Hj0). apply map_ext_in. intros k Hk.
    destruct (kid_bound _ _ _ HO Hk) as [_ B]. apply afind_cons_fresh; assumption.
Qed.

(** ** a token changes its thread / tag: same edge value *)
Lemma link_retoken hs own nodes cn tok hd x h tok' x' :
  KLinkP hs own nodes cn tok hd -> take_tok3 x tok = Some (h, tok') -> eref (snd x') = eref (snd x) ->
  KLinkP hs own nodes cn ((x', h) :: tok') hd.
Proof.
  intros L HT Ee. pose proof (take_tok3_perm _ _ _ _ HT) as P.
  assert (Hin : forall y, In y ((x, h) :: tok') -> In y tok).
  { intros y Hy. eapply Permutation_in; [apply Permutation_sym; exact P | exact Hy]. }
  constructor; try apply L.
  - intros y [<-|Hy].
    + destruct (kl_tok _ _ _ _ _ _ L (x, h) (Hin _ (or_introl eq_refl))) as (id & A & B & C).
      exists id. cbn [fst snd] in *. rewrite Ee. auto.
    + apply (kl_tok _ _ _ _ _ _ L). apply Hin. right. exact Hy.
  - eapply Permutation_NoDup; [|apply (kl_nd _ _ _ _ _ _ L)]. apply Permutation_app_head.
    apply (Permutation_map snd) in P. exact P.
Qed.

(** ** more small facts *)

Lemma afind_cons2_fresh (hs : list (nat * N)) k h1 h2 v w :
  afind k hs <> None -> afind h1 hs = None -> afind h2 hs = None ->
  afind k ((h2, v) :: (h1, w) :: hs) = afind k hs.
Proof.
  intros Hk H1 H2. cbn [afind]. destruct (Nat.eqb_spec h2 k) as [->|_]; [congruence|].
  destruct (Nat.eqb_spec h1 k) as [->|_]; [congruence | reflexivity].
Qed.

Lemma afind_new_own (own : list (nat * N)) hts v k :
  ~ In k hts -> afind k (map (fun h => (h, v)) hts ++ own) = afind k own.
Proof.
  induction hts as [|h r IH]; cbn [map app afind]; intros H; [reflexivity|].
  destruct (Nat.eqb_spec h k) as [->|_]; [exfalso; apply H; left; reflexivity | apply IH; intro; apply H; right; assumption].
Qed.

Lemma kids_of_app p a b : kids_of p (a ++ b) = kids_of p a ++ kids_of p b.
Proof. unfold kids_of. rewrite filter_app, map_app. reflexivity. Qed.

Lemma kids_of_new p v hts : kids_of p (map (fun h => (h, v)) hts) = if (v =? p)%N then hts else [].
Proof.
  unfold kids_of. induction hts as [|h r IH]; cbn [map filter snd]; [destruct (v =? p)%N; reflexivity|].
  destruct (v =? p)%N; cbn [map fst]; rewrite IH; reflexivity.
Qed.

Lemma kids_of_nil p own : (forall k, ~ In (k, p) own) -> kids_of p own = [].
Proof.
  intros H. destruct (kids_of p own) as [|k r] eqn:E; [reflexivity|]. exfalso. apply (H k). apply In_kids_iff. rewrite E. left. reflexivity.
Qed.

Lemma keys_fun (l : list (nat * N)) k a b : NoDup (map fst l) -> In (k, a) l -> In (k, b) l -> a = b.
Proof.
  induction l as [|[k0 v0] r IH]; cbn [map fst In]; [tauto|]. intros Hnd Ha Hb. inversion Hnd; subst.
  destruct Ha as [Ea|Ha], Hb as [Eb|Hb].
  - congruence.
  - inversion Ea; subst. exfalso. apply H1. apply in_map_iff. exists (k, b). auto.
  - inversion Eb; subst. exfalso. apply H1. apply in_map_iff. exists (k, a). auto.
  - auto.
Qed.

Lemma kids_aremove p c (l : list (nat * N)) : ~ In (c, p) l -> kids_of p (aremove c l) = kids_of p l.
Proof.
  unfold kids_of. induction l as [|[k v] r IH]; cbn [aremove filter snd In]; intros H; [reflexivity|].
  destruct (Nat.eqb_spec k c) as [->|Hne].
  - destruct (N.eqb_spec v p) as [->|_]; [exfalso; apply H; left; reflexivity | apply IH; tauto].
  - cbn [filter snd]. destruct (v =? p)%N; cbn [map fst]; rewrite IH by tauto; reflexivity.
Qed.

Lemma kids_rm_all p cs : forall l : list (nat * N), (forall k, In k cs -> ~ In (k, p) l) -> kids_of p (rm_all cs l) = kids_of p l.
Proof.
  induction cs as [|c r IH]; intros l H; cbn [rm_all]; [reflexivity|].
  rewrite IH.
  - apply kids_aremove. apply H. left. reflexivity.
  - intros k Hk Hin. apply In_aremove in Hin. apply (H k); [right; exact Hk | tauto].
Qed.

Lemma kids_nodup p (own : list (nat * N)) : NoDup (map fst own) -> NoDup (kids_of p own).
Proof.
  unfold kids_of. induction own as [|[k v] r IH]; cbn [map fst filter snd]; intros H; [constructor|].
  inversion H; subst. destruct (v =? p)%N; [|auto]. cbn [map fst]. constructor; [|auto].
  intros Hin. apply H2. apply in_map_iff in Hin. destruct Hin as (x & E & Hx). apply filter_In in Hx.
  apply in_map_iff. exists x. tauto.
Qed.

Lemma map_eq_F2 {A B C} (f : A -> C) (g : B -> C) l1 : forall l2, map f l1 = map g l2 -> Forall2 (fun a b => f a = g b) l1 l2.
Proof.
  induction l1 as [|a r IH]; intros [|b r2] H; cbn in H; try discriminate; constructor.
  - inversion H; auto.
  - apply IH. inversion H; auto.
Qed.

(** ** a node is added, the edge values [hts] of the consumed tokens move into it *)
Lemma link_add i cn tok hd tid lvl ch hts tok1 fr h1 h2 p :
  OwnOK i -> KLinkP (i_hs i) (i_own i) (i_nodes i) cn tok hd ->
  take_toks3 tid ch tok = Some (hts, tok1) ->
  afind h1 (i_hs i) = None -> afind h2 (i_hs i) = None -> h1 <> h2 ->
  nget (i_nodes i) (Npos fr) = None ->
  cfind cn fr = None /\
  KLinkP ((h2, Npos fr) :: (h1, Npos fr) :: i_hs i) (map (fun h => (h, Npos fr)) hts ++ i_own i)
         (nset (i_nodes i) (Npos fr) (p, 2%N)) ((fr, mkC lvl ch 1%N) :: cn)
         ((tid, mkEdge (RN fr) false, h2) :: tok1) ((fr, h1) :: hd).
Proof.
  intros HO L HT H1 H2 Hne Hfr. destruct (toks_facts _ _ _ _ _ _ _ _ L HT) as (Hnd2 & I2 & Hown & Hbnd & Htg).
  assert (Hcf : cfind cn fr = None).
  { destruct (cfind cn fr) as [nd|] eqn:E; [|reflexivity]. destruct (proj1 (kl_agree _ _ _ _ _ _ L) _ _ E) as [q Hq]. congruence. }
  split; [exact Hcf|].
  assert (Hhf : hfind fr hd = None).
  { destruct (hfind fr hd) eqn:E; [|reflexivity]. exfalso. apply (proj2 (kl_dom _ _ _ _ _ _ L fr)); congruence. }
  assert (Huo : forall h, afind h (i_hs i) = None -> afind h (i_own i) = None).
  { intros h Hh. destruct (afind h (i_own i)) eqn:E; [|reflexivity]. exfalso. apply (own_bound i h HO); congruence. }
  assert (Hnh : forall h, afind h (i_hs i) = None -> ~ In h hts) by (intros h Hh Hin; apply (Hbnd h Hin Hh)).
  constructor.
  - intros id. cbn [cfind hfind]. destruct (Pos.eqb fr id); [split; discriminate | apply (kl_dom _ _ _ _ _ _ L)].
  - intros id ht [E|Hin].
    + injection E as <- <-. split.
      * cbn [afind]. destruct (Nat.eqb_spec h2 h1); [congruence|]. rewrite Nat.eqb_refl. reflexivity.
      * rewrite afind_new_own by (apply Hnh; exact H1). apply Huo. exact H1.
    + destruct (kl_hd _ _ _ _ _ _ L _ _ Hin) as [A B]. split.
      * rewrite afind_cons2_fresh; [exact A | congruence | exact H1 | exact H2].
      * rewrite afind_new_own; [exact B|]. intros Hh.
        apply (nodup_disj _ _ ht Hnd2); [apply in_map_iff; exists (id, ht); auto | apply in_or_app; left; exact Hh].
  - cbn [map fst]. constructor; [apply hfind_None; exact Hhf | apply (kl_hdnd _ _ _ _ _ _ L)].
  - intros x [<-|Hx].
    + exists fr. cbn [fst snd eref afind]. rewrite Nat.eqb_refl. split; [reflexivity|]. split; [reflexivity|].
      rewrite afind_new_own by (apply Hnh; exact H2). apply Huo. exact H2.
    + destruct (kl_tok _ _ _ _ _ _ L x (I2 _ Hx)) as (id & A & B & C). exists id. split; [exact A|]. split.
      * rewrite afind_cons2_fresh; [exact B | congruence | exact H1 | exact H2].
      * rewrite afind_new_own; [exact C|]. intros Hh.
        apply (nodup_disj _ _ (snd x) (NoDup_app_r _ _ Hnd2)); [exact Hh | apply in_map; exact Hx].
  - assert (Hb : forall g, In g (map snd hd ++ map snd tok1) -> afind g (i_hs i) <> None).
    { intros g Hg. apply in_app_or in Hg. destruct Hg as [Hg|Hg]; apply in_map_iff in Hg; destruct Hg as (x & E & Hx).
      - destruct x as [j g']. cbn in E. subst g'. destruct (kl_hd _ _ _ _ _ _ L _ _ Hx) as [A _]. congruence.
      - destruct (kl_tok _ _ _ _ _ _ L x (I2 _ Hx)) as (j & _ & B & _). rewrite E in B. congruence. }
    cbn [map fst snd app]. constructor.
    + intros Hin. apply in_app_or in Hin. destruct Hin as [Hin|[E|Hin]].
      * apply (Hb h1); [apply in_or_app; left; exact Hin | exact H1].
      * congruence.
      * apply (Hb h1); [apply in_or_app; right; exact Hin | exact H1].
    + apply (proj2 (NoDup_Add (Add_app h2 (map snd hd) (map snd tok1)))). split; [eapply nodup_drop_mid; exact Hnd2|].
      intros Hin. apply (Hb h2 Hin H2).
  - destruct (kl_agree _ _ _ _ _ _ L) as [A1 A2]. split.
    + intros id nd. cbn [cfind]. rewrite nget_nset. destruct (Pos.eqb_spec fr id) as [<-|Hn].
      * intros E. injection E as <-. rewrite N.eqb_refl. exists p. cbn [crc]. reflexivity.
      * intros E. destruct (N.eqb_spec (Npos fr) (Npos id)) as [E2|_]; [inversion E2; congruence | apply A1; exact E].
    + intros j. rewrite nget_nset. destruct (N.eqb_spec (Npos fr) j) as [E|Hn].
      * intros _. subst j. exists fr. split; [reflexivity|]. cbn [cfind]. rewrite Pos.eqb_refl. discriminate.
      * intros Hj. destruct (A2 j Hj) as (id & E & Hi). exists id. split; [exact E|]. cbn [cfind].
        destruct (Pos.eqb fr id); [discriminate | exact Hi].
  - intros id nd. cbn [cfind]. rewrite kids_of_app, kids_of_new. destruct (Pos.eqb_spec fr id) as [<-|Hn].
    + intros E. injection E as <-. cbn [cch]. rewrite N.eqb_refl.
      rewrite (kids_of_nil (Npos fr) (i_own i)).
      2:{ intros k Hin. destruct HO as [_ HO]. destruct (HO _ _ Hin) as [_ B]. congruence. }
      rewrite app_nil_r, <- Htg. apply map_ext_in. intros k Hk. apply afind_cons2_fresh; [apply Hbnd; exact Hk | exact H1 | exact H2].
    + intros E. destruct (N.eqb_spec (Npos fr) (Npos id)) as [E2|_]; [inversion E2; congruence|]. cbn [app].
      rewrite <- (kl_kids _ _ _ _ _ _ L _ _ E). apply map_ext_in. intros k Hk.
      destruct (kid_bound _ _ _ HO Hk) as [_ B]. apply afind_cons2_fresh; assumption.
Qed.

(** ** a node with stored count 1 is removed; the edge values inside it are released *)
Lemma link_remove i cn tok hd id nd ht p :
  RcInv (iabs i) -> OwnOK i -> KLinkP (i_hs i) (i_own i) (i_nodes i) cn tok hd -> NoDup (map fst cn) ->
  cfind cn id = Some nd -> hfind id hd = Some ht -> nget (i_nodes i) (Npos id) = Some (p, 1%N) ->
  (forall j, In j (inner_ids (cch nd)) -> j <> id /\ cfind cn j <> None) ->
  exists i1,
    release_all (mkI (i_al i) (ndel (i_nodes i) (Npos id)) (aremove ht (i_hs i)) (i_own i))
                (kids_of (Npos id) (i_own i)) = Some (i1, false) /\
    KLinkP (i_hs i1) (i_own i1) (i_nodes i1) (dec_children (cremove id cn) (cch nd)) tok (hremove id hd).
Proof.
  intros HR HO L Hndc Hc Hht Hn Hch.
  destruct (kl_hd _ _ _ _ _ _ L _ _ (hfind_In _ _ _ Hht)) as [Hf Hfo].
  set (kids := kids_of (Npos id) (i_own i)).
  set (s0 := mkI (i_al i) (ndel (i_nodes i) (Npos id)) (aremove ht (i_hs i)) (i_own i)).
  assert (HR0 : RcInv (iabs s0)).
  { eapply (astep_inv N N.eqb N.eqb_eq) with (o := AEnd ht) (r := ARGone p); [exact HR|].
    cbn [astep iabs a_hs a_map i_hs i_nodes s0]. exists (Npos id), p, 1%N.
    split; [exact Hf|]. split; [exact Hn|]. split; [reflexivity|]. left.
    split; [reflexivity|]. split; [reflexivity|]. intros j. apply nget_ndel. }
  destruct (kl_agree _ _ _ _ _ _ L) as [A1 A2].
  assert (HA0 : Agree (i_nodes s0) (cremove id cn)).
  { split; cbn [s0 i_nodes].
    - intros j ndj. rewrite (cfind_cremove _ _ _ Hndc), nget_ndel. destruct (Pos.eqb_spec j id) as [->|Hne]; [discriminate|].
      intros E. destruct (N.eqb_spec (Npos id) (Npos j)) as [E2|_]; [inversion E2; congruence | apply A1; exact E].
    - intros j. rewrite nget_ndel. destruct (N.eqb_spec (Npos id) j) as [E|Hne]; [congruence|]. intros Hj.
      destruct (A2 j Hj) as (i0 & E & Hi). exists i0. split; [exact E|]. rewrite (cfind_cremove _ _ _ Hndc).
      destruct (Pos.eqb_spec i0 id) as [->|_]; [congruence | exact Hi]. }
  assert (Hkn : NoDup kids) by (apply kids_nodup; apply HO).
  assert (Hkb : forall k, In k kids -> afind k (i_own i) <> None) by (intros k Hk; apply (kid_bound _ _ _ HO Hk)).
  assert (Hkht : forall k, afind k (i_own i) <> None -> k <> ht) by (intros k Hk ->; congruence).
  assert (F0 : Forall2 (fun h j => afind h (i_hs i) = Some (Npos j)) kids (inner_ids (cch nd))).
  { apply (map_eq_F2 (fun h => afind h (i_hs i)) (fun j => Some (Npos j))). apply (kl_kids _ _ _ _ _ _ L _ _ Hc). }
  destruct (release_all_agree kids (inner_ids (cch nd)) s0 (cremove id cn) HR0 HA0 Hkn) as (i1 & E1 & HR1 & HA1).
  { eapply F2_impl_in; [|exact F0].
    intros h j Hh Hj Hhj. cbn [s0 i_hs]. rewrite afind_aremove.
    destruct (Nat.eqb_spec ht h) as [->|_]; [exfalso; apply (Hkht h); [apply Hkb; exact Hh | reflexivity]|].
    split; [exact Hhj|]. destruct (Hch j Hj) as [Hjid Hjc].
    assert (Hd : hfind j hd <> None) by (apply (kl_dom _ _ _ _ _ _ L); exact Hjc).
    destruct (hfind j hd) as [g|] eqn:Hg; [|congruence].
    destruct (kl_hd _ _ _ _ _ _ L _ _ (hfind_In _ _ _ Hg)) as [Hgf Hgo].
    exists g. split; [intros Hin; apply (Hkb g Hin Hgo)|]. rewrite afind_aremove.
    destruct (Nat.eqb_spec ht g) as [->|_]; [|exact Hgf]. rewrite Hf in Hgf. inversion Hgf. congruence. }
  exists i1. split; [exact E1|].
  destruct (release_all_spec _ _ _ E1) as (_ & _ & Eh & Eo & _). cbn [s0 i_hs i_own] in Eh, Eo.
  pose proof (hremove_perm _ _ _ Hht) as P.
  assert (Hnd3 : NoDup (ht :: map snd (hremove id hd) ++ map snd tok)).
  { eapply Permutation_NoDup; [|apply (kl_nd _ _ _ _ _ _ L)].
    change (ht :: map snd (hremove id hd) ++ map snd tok) with (map snd ((id, ht) :: hremove id hd) ++ map snd tok).
    apply Permutation_app_tail. apply Permutation_map. exact P. }
  assert (Hstab : forall g, g <> ht -> afind g (i_own i) = None ->
            afind g (i_hs i1) = afind g (i_hs i) /\ afind g (i_own i1) = None).
  { intros g Hg Hgo. rewrite Eh, Eo. assert (~ In g kids) by (intros Hin; apply (Hkb g Hin Hgo)).
    rewrite !afind_rm_all by assumption. rewrite afind_aremove. destruct (Nat.eqb_spec ht g); [congruence | auto]. }
  constructor.
  - intros j. rewrite cfind_dec_children_dom, (cfind_cremove _ _ _ Hndc), (hfind_hremove _ _ _ (kl_hdnd _ _ _ _ _ _ L)).
    rewrite (Pos.eqb_sym j id). destruct (Pos.eqb id j); [tauto | apply (kl_dom _ _ _ _ _ _ L)].
  - intros j g Hin. assert (Hin0 : In (j, g) hd) by (eapply Permutation_in; [apply Permutation_sym; exact P | right; exact Hin]).
    destruct (kl_hd _ _ _ _ _ _ L _ _ Hin0) as [A B].
    assert (Hg : g <> ht).
    { intros ->. inversion Hnd3 as [|? ? Hni Hrest]. apply Hni. apply in_or_app. left. apply in_map_iff. exists (j, ht). auto. }
    destruct (Hstab g Hg B) as [C D]. rewrite C. auto.
  - assert (Hx : NoDup (map fst ((id, ht) :: hremove id hd))) by (eapply Permutation_NoDup; [apply Permutation_map; exact P | apply (kl_hdnd _ _ _ _ _ _ L)]).
    inversion Hx; assumption.
  - intros x Hx. destruct (kl_tok _ _ _ _ _ _ L x Hx) as (j & A & B & C). exists j. split; [exact A|].
    assert (Hg : snd x <> ht).
    { intros E. inversion Hnd3 as [|? ? Hni Hrest]. apply Hni. apply in_or_app. right. rewrite <- E. apply in_map. exact Hx. }
    destruct (Hstab _ Hg C) as [D F]. rewrite D. auto.
  - inversion Hnd3; assumption.
  - rewrite dec_children_ids. exact HA1.
  - intros j nd' Hj. destruct (cfind_dec_children_some _ _ _ _ Hj) as (nd0 & Hj0 & -> & _).
    rewrite (cfind_cremove _ _ _ Hndc) in Hj0. destruct (Pos.eqb_spec j id) as [->|Hne]; [discriminate|].
    rewrite Eo, kids_rm_all.
    2:{ intros k Hk Hin. apply In_kids_iff in Hk. pose proof (keys_fun _ _ _ _ (proj1 HO) Hk Hin) as E. inversion E. congruence. }
    rewrite <- (kl_kids _ _ _ _ _ _ L _ _ Hj0). apply map_ext_in. intros k Hk.
    assert (Hko : afind k (i_own i) <> None) by (apply (kid_bound _ _ _ HO Hk)).
    rewrite Eh, afind_rm_all.
    + rewrite afind_aremove. destruct (Nat.eqb_spec ht k) as [->|_]; [congruence | reflexivity].
    + intros Hin. apply In_kids_iff in Hin, Hk. pose proof (keys_fun _ _ _ _ (proj1 HO) Hk Hin) as E. inversion E. congruence.
Qed.
