(** * STORECONC2 — progress of the composed model Mgr/Core.v and the whole collection.

    (1) [kstep_total]: in a [KInv] state the executable model never returns [None] for a reason of
        its own: if Conc's guard holds ([kops] = [Some]) and the store accepts the script ([irun] =
        [Some]), then [kfin] yields a state -- the result shapes that [kfin] does not handle are never
        produced by [istep] for the script, and the slot id of a new node is not 0 (the allocator's
        invariant contains [1 <= term c]: the terminal slots come first, `TERMINALS`; it is
        established by [kinit] and carried by [KInv], so no wrapper invariant is needed).
    (2) [kstep_progress]: the store script itself is refused only by the ALLOCATOR ([kalloc_ok]: the
        thread of an allocation / of a collector step that frees a slot exists, an allocator-internal
        action is enabled); every guard inside [istep] that is about edge values, counts and nodes
        holds in a [KInv] state.  [kstep_some_iff]: [kstep = None] iff Conc's guard fails or the
        allocator refuses.
    (3) the collector's removal step is enabled for every dead node ([kgc_progress]), hence
        [kproj (kcollect c t s) = collect (kproj s)] ([kcollect_proj]) for every [KInv] state and every
        existing collector thread [t], and the full retry theorem [retry_after_gc].
    (1) and (2) are read off the per-action analyses [cl_*] / [kfin_ok] of Mgr/CoreProofs.v. *)

From Coq Require Import List NArith ZArith PArith Bool Arith Lia FMapPositive Permutation.
From OxiVerif Require Mgr.AllocStep.
From OxiVerif Require Import DD.Table Mgr.Alloc Mgr.AllocBase Mgr.AllocInv Mgr.AllocProofs Tbl.RcStore Mgr.IndexStore
  Mgr.IndexStoreProofs Mgr.Conc Mgr.ConcBase Mgr.ConcProofs Mgr.ConcGc Mgr.ConcGcProofs Mgr.ConcGcCount
  Mgr.Core Mgr.CoreBase Mgr.CoreLink Mgr.CoreProofs Mgr.CoreThms.
From OxiVerif Require Mgr.IndexStoreEquiv.
Import ListNotations.

Arguments N.add : simpl never.
Arguments N.sub : simpl never.

Section Progress.
Variable k : kind.
Variable terms : list (N * N).
Variable nl : nat.

Notation xstep := (Conc.step k terms nl).
Notation xrun := (Conc.run k terms nl).
Notation CInv := (ConcProofs.CInv k terms nl).
Notation kops := (kops k terms nl).
Notation kstep := (kstep k terms nl).
Notation krun := (krun k terms nl).
Notation KInv := (KInv k terms nl).
Notation kgc_try := (kgc_try k terms nl).
Notation kgc_level := (kgc_level k terms nl).
Notation kcollect := (kcollect k terms nl).
Notation gc_try := (ConcGc.gc_try k terms nl).
Notation gc_level := (ConcGc.gc_level k terms nl).
Notation collect := (ConcGc.collect k terms nl).

Definition nthreads (s : kst) : nat := length (th (i_al (k_i s))).

(** thread [t] must exist only when the entry is removed: it frees the slot *)
Lemma kgc_step c s t id nd :
  KInv c s -> (crc nd = 0%N -> t < nthreads s) -> cfind (k_cn s) id = Some nd ->
  exists s' r rs, kstep c s (KGc t id) = Some (s', r, rs) /\ nthreads s' = nthreads s /\
    (if N.eqb (crc nd) 0 then r = KRRemoved else r = KRKept /\ s' = s).
Proof.
  intros HK Ht Hc. destruct s as [i cn tok hd]. unfold nthreads in *. cbn [k_i k_cn] in *.
  destruct (cl_gc k terms nl c i cn tok hd t id nd HK Hc) as (ops & Eo & Hen & F).
  pose proof (proj2 Hen Ht) as Hr. destruct (irun c i ops) as [[i' rs]|] eqn:Er; [|congruence].
  destruct (F i' rs eq_refl) as (Hlen & s' & r & Hf & Ei & _ & Hres).
  exists s', r, rs. split; [unfold Core.kstep; rewrite Eo; cbn [k_i]; rewrite Er, Hf; reflexivity|]. rewrite Ei. auto.
Qed.

Lemma kgc_progress c s t id nd :
  KInv c s -> t < nthreads s -> cfind (k_cn s) id = Some nd ->
  exists s' r rs, kstep c s (KGc t id) = Some (s', r, rs) /\ nthreads s' = nthreads s /\
    (if N.eqb (crc nd) 0 then r = KRRemoved else r = KRKept /\ s' = s).
Proof. intros HK Ht. apply kgc_step; auto. Qed.

(** one iteration of `retain`: the core's step projects to Conc's *)
Lemma kgc_try_proj c t s id : KInv c s -> t < nthreads s ->
  kproj (kgc_try c t s id) = gc_try (kproj s) id /\ nthreads (kgc_try c t s id) = nthreads s.
Proof.
  intros HK Ht. unfold Core.kgc_try, ConcGc.gc_try. cbn [Conc.step kproj Conc.cn].
  destruct (cfind (k_cn s) id) as [nd|] eqn:Hc.
  - destruct (kgc_progress c s t id nd HK Ht Hc) as (s' & r & rs & E & Hn & Hr). rewrite E.
    destruct (N.eqb (crc nd) 0) eqn:Hz.
    + subst r. destruct (kstep_spec k terms nl c s _ s' _ rs HK E) as (_ & _ & Hx & _).
      cbn [kacts Conc.run Conc.step kproj Conc.cn] in Hx. rewrite Hc, Hz in Hx. split; [|exact Hn]. congruence.
    + destruct Hr as [_ ->]. auto.
  - unfold Core.kstep. cbn [Core.kops]. rewrite Hc. auto.
Qed.

Lemma kgc_ids_proj c t ids : forall s, KInv c s -> t < nthreads s ->
  kproj (fold_left (kgc_try c t) ids s) = fold_left gc_try ids (kproj s) /\
  nthreads (fold_left (kgc_try c t) ids s) = nthreads s.
Proof.
  induction ids as [|id r IH]; intros s HK Ht; cbn [fold_left]; [auto|].
  destruct (kgc_try_proj c t s id HK Ht) as [E1 E2].
  destruct (IH (kgc_try c t s id)) as [E3 E4]; [apply kgc_try_inv; exact HK | rewrite E2; exact Ht|].
  rewrite E3, E4, E1, E2. auto.
Qed.

Lemma kgc_level_proj c t s l : KInv c s -> t < nthreads s ->
  kproj (kgc_level c t s l) = gc_level (kproj s) l /\ nthreads (kgc_level c t s l) = nthreads s.
Proof. intros HK Ht. unfold Core.kgc_level, ConcGc.gc_level. cbn [kproj Conc.cn]. apply kgc_ids_proj; assumption. Qed.

(** `Manager::gc` by an existing thread [t]: the core's collection IS Conc's [collect] on the
    projection -- for every state that satisfies the invariant *)
Theorem kcollect_proj c t s : KInv c s -> t < nthreads s ->
  kproj (kcollect c t s) = collect (kproj s) /\ nthreads (kcollect c t s) = nthreads s.
Proof.
  unfold Core.kcollect, ConcGc.collect. generalize (seq 0 nl). intros ls. revert s.
  induction ls as [|l r IH]; intros s HK Ht; cbn [fold_left]; [auto|].
  destruct (kgc_level_proj c t s l HK Ht) as [E1 E2].
  destruct (IH (kgc_level c t s l)) as [E3 E4].
  - unfold Core.kgc_level. apply kgc_ids_inv. exact HK.
  - rewrite E2. exact Ht.
  - rewrite E3, E4, E1, E2. auto.
Qed.

(** ** allocator-internal actions (the collector's epilogue, guard drops, ...) between the collection
       and the retry: table, tokens and hash-table edges are untouched *)
Lemma krun_internal c ias : forall s s2 xs rs, KInv c s -> krun c s (map KInternal ias) = Some (s2, xs, rs) ->
  KInv c s2 /\ k_cn s2 = k_cn s /\ k_tok s2 = k_tok s /\ k_hd s2 = k_hd s.
Proof.
  induction ias as [|a r IH]; intros s s2 xs rs HK H; cbn [map Core.krun] in H.
  - inversion H; subst. auto.
  - destruct (kstep c s (KInternal a)) as [[[s1 x] rs1]|] eqn:E1; [|discriminate].
    destruct (krun c s1 (map KInternal r)) as [[[s3 xs3] rs3]|] eqn:E2; [|discriminate]. injection H as <- <- <-.
    pose proof (kstep_spec k terms nl c s _ s1 x rs1 HK E1) as (_ & _ & _ & HK1).
    destruct (IH _ _ _ _ HK1 E2) as (HK2 & A & B & C). split; [exact HK2|].
    destruct (kstep_parts _ _ _ _ _ _ _ _ _ E1) as (ops & i' & _ & _ & Hf). cbn [kfin] in Hf.
    destruct rs1 as [|[| | | | | | |o] [|]]; try discriminate Hf. injection Hf as <- <-.
    cbn [k_cn k_tok k_hd] in *. auto.
Qed.

(** the table never holds more entries than the store has slots *)
Lemma table_le_cap c s : KInv c s -> length (k_cn s) <= N.to_nat (cap c).
Proof.
  intros HK. rewrite <- (nlive_table k terms nl c s HK). destruct HK as ((HA & _) & _).
  pose proof (free_count c _ HA). lia.
Qed.

(** a stored node that no owned edge of any thread reaches *)
Definition kdead (s : kst) (id : positive) : Prop :=
  (exists nd, cfind (k_cn s) id = Some nd) /\ ~ reach_own (kproj s) id.

Lemma garbage_dead s id : CInv (kproj s) -> (In id (garbage nl (kproj s)) <-> kdead s id).
Proof.
  intros HC. unfold garbage, kdead. rewrite filter_In. cbn [kproj Conc.cn].
  rewrite negb_true_iff, <- not_true_iff_false, (reach_own_b_spec k terms nl _ id HC). cbn [kproj].
  split; intros [A B]; (split; [|exact B]).
  - destruct (cfind (k_cn s) id) as [nd|] eqn:E; [eauto|]. apply cfind_None_keys in E. contradiction.
  - destruct A as [nd A]. eapply cfind_Some_keys; eauto.
Qed.

(** ** the retry after a whole collection.  [s]: any state of the manager ([KInv]); thread [t] (it
    exists) runs `Manager::gc`; then any allocator-internal actions [ias] (the collector's epilogue
    [AGcFlush t], guard drops, ...); then thread [tid] -- no slot is parked with another thread --
    calls `get_or_insert` for a node that is not in the table.  The call fails IFF the table filled
    the store before the collection and no stored node was dead; i.e. after a failed call on a full
    store the retry succeeds iff some stored node was dead *)
Theorem retry_after_gc c t s s1 : KInv c s -> t < nthreads s -> s1 = kcollect c t s ->
  KInv c s1 /\ kproj s1 = collect (kproj s) /\
  (forall id, In id (map fst (k_cn s1)) <-> In id (map fst (k_cn s)) /\ ~ kdead s id) /\
  length (k_cn s) = length (k_cn s1) + length (garbage nl (kproj s)) /\
  (forall id, In id (garbage nl (kproj s)) <-> kdead s id) /\
  forall ias s2 xs2 rs2 tid l lvl ch s' r rs,
    krun c s1 (map KInternal ias) = Some (s2, xs2, rs2) ->
    nth_error (th (i_al (k_i s2))) tid = Some l -> others_idle_p c (i_al (k_i s2)) tid ->
    kstep c s2 (KGoi tid lvl ch) = Some (s', r, rs) -> find_shape (k_cn s2) lvl ch = None ->
    KInv c s2 /\ k_cn s2 = k_cn s1 /\
    (r = KROom <-> length (k_cn s) = N.to_nat (cap c) /\ forall id, ~ kdead s id) /\
    ((exists fr, r = KRNew fr) <-> length (k_cn s) < N.to_nat (cap c) \/ exists id, kdead s id).
Proof.
  intros HK Ht ->. pose proof (kcollect_inv k terms nl c t s HK) as HK1.
  destruct (kcollect_proj c t s HK Ht) as [Ep _]. pose proof HK as (_ & HC & _).
  destruct (collect_count k terms nl (kproj s) HC) as [Hcnt _]. rewrite <- Ep in Hcnt. cbn [kproj Conc.cn] in Hcnt.
  pose proof (fun id => garbage_dead s id HC) as Hg.
  split; [exact HK1|]. split; [exact Ep|]. split; [|split; [exact Hcnt|split; [exact Hg|]]].
  - intros id. destruct (collect_keys k terms nl (kproj s) HC) as [_ Hk]. specialize (Hk id). rewrite <- Ep in Hk.
    cbn [kproj Conc.cn] in Hk. rewrite Hk. unfold survivors. rewrite filter_In. cbn [kproj Conc.cn].
    specialize (Hg id). unfold garbage in Hg. rewrite filter_In in Hg. cbn [kproj Conc.cn] in Hg.
    destruct (reach_own_b nl (kproj s) id); cbn [negb] in Hg.
    + split; intros [A B]; split; auto. intros D. apply Hg in D. destruct D; discriminate.
    + split; intros [A B]; [discriminate|]. exfalso. apply B, Hg. auto.
  - intros ias s2 xs2 rs2 tid l lvl ch s' r rs Hrun Hl Ho H Hfs.
    destruct (krun_internal c ias _ _ _ _ HK1 Hrun) as (HK2 & Ecn & _ & _).
    split; [exact HK2|]. split; [exact Ecn|].
    pose proof (goi_oom_single k terms nl c s2 tid l lvl ch s' r rs HK2 Hl Ho H Hfs) as Hoom. rewrite Ecn in Hoom.
    pose proof (table_le_cap c s HK) as Hle.
    assert (Hnil : (forall id, ~ kdead s id) <-> length (garbage nl (kproj s)) = 0).
    { split.
      - intros Hd. destruct (garbage nl (kproj s)) as [|id g] eqn:Eg; [reflexivity|]. exfalso. apply (Hd id). apply Hg. left. reflexivity.
      - intros Hl0 id D. apply Hg in D. destruct (garbage nl (kproj s)); [contradiction | discriminate]. }
    assert (Hoom' : r = KROom <-> length (k_cn s) = N.to_nat (cap c) /\ forall id, ~ kdead s id).
    { rewrite Hoom, Hnil. pose proof (table_le_cap c _ HK1). lia. }
    split; [exact Hoom'|].
    assert (Hres : r = KROom \/ exists fr, r = KRNew fr).
    { destruct (goi_parts k terms nl _ _ _ _ _ _ _ _ H); [congruence | eauto | eauto]. }
    split.
    + intros [fr ->]. destruct (Nat.eq_dec (length (k_cn s)) (N.to_nat (cap c))) as [E|E]; [|left; lia]. right.
      destruct (garbage nl (kproj s)) as [|id g] eqn:Eg.
      * exfalso. assert (KRNew fr = KROom); [|discriminate]. apply Hoom'. split; [exact E|]. apply Hnil. reflexivity.
      * exists id. apply Hg. left. reflexivity.
    + intros Hd. destruct Hres as [->|Hn]; [|exact Hn]. exfalso. destruct (proj1 Hoom' eq_refl) as [E Hno].
      destruct Hd as [Hlt|[id D]]; [lia | exact (Hno id D)].
Qed.

End Progress.

(** * the model is never stuck for a reason of its own *)

Section Total.
Variable k : kind.
Variable terms : list (N * N).
Variable nl : nat.

Notation CInv := (ConcProofs.CInv k terms nl).
Notation kops := (kops k terms nl).
Notation kstep := (kstep k terms nl).
Notation KInv := (KInv k terms nl).

(** (1) Conc's guard holds, the store accepts the script: [kfin] yields a state *)
Theorem kstep_total c s a ops i' rs : KInv c s -> kops s a = Some ops -> irun c (k_i s) ops = Some (i', rs) ->
  exists s' r, kfin s a i' rs = Some (s', r) /\ kstep c s a = Some (s', r, rs).
Proof.
  intros HK Ho Hr. destruct (kfin_ok k terms nl c s a ops HK Ho i' rs Hr) as (s' & r & Hf & _).
  exists s', r. split; [exact Hf|]. unfold Core.kstep. rewrite Ho, Hr, Hf. reflexivity.
Qed.

(** (2) what the ALLOCATOR needs: the thread of an allocation (`get_or_insert` of a node that is not in
    the table) exists; the collector thread of a step that frees a slot exists; an allocator-internal
    action is internal and enabled *)
Definition kalloc_ok (c : cfg) (s : kst) (a : kact) : Prop :=
  match a with
  | KGoi tid lvl ch => find_shape (k_cn s) lvl ch = None -> tid < nthreads s
  | KGc t id => (exists nd, cfind (k_cn s) id = Some nd /\ crc nd = 0%N) -> t < nthreads s
  | KInternal a => internal a = true /\ Alloc.step c good (i_al (k_i s)) a <> None
  | _ => True
  end.

(** the store script of every action whose guard holds is accepted unless the allocator refuses *)
Theorem kstep_progress c s a : KInv c s -> kops s a <> None -> kalloc_ok c s a ->
  exists s' r rs, kstep c s a = Some (s', r, rs).
Proof.
  intros HK Ho Hal.
  assert (Run : forall ops, kops s a = Some ops -> irun c (k_i s) ops <> None -> exists s' r rs, kstep c s a = Some (s', r, rs)).
  { intros ops Eo Hr. destruct (irun c (k_i s) ops) as [[i' rs]|] eqn:Er; [|congruence].
    destruct (kstep_total c s a ops i' rs HK Eo Er) as (s' & r & _ & E). eauto. }
  destruct (kops s a) as [ops|] eqn:Eo; [|congruence]. destruct a.
  - destruct s as [i cn tok hd]. apply (Run ops eq_refl). apply (proj1 (cl_goi k terms nl c _ _ _ _ _ _ _ _ HK Eo)). exact Hal.
  - destruct s as [i cn tok hd]. apply (Run ops eq_refl). eapply (done_runs k terms nl), cl_retain; eassumption.
  - destruct s as [i cn tok hd]. apply (Run ops eq_refl). eapply (done_runs k terms nl), cl_release; eassumption.
  - destruct s as [i cn tok hd]. apply (Run ops eq_refl). eapply (done_runs k terms nl), cl_move; [apply HK | eassumption].
  - destruct s as [i cn tok hd]. apply (Run ops eq_refl). eapply (done_runs k terms nl), cl_not; [apply HK | eassumption].
  - cbn [Core.kops] in Eo. destruct (cfind (k_cn s) id) as [nd|] eqn:Hc; [|discriminate].
    assert (Ht : crc nd = 0%N -> t < nthreads s) by (intros Hz; apply Hal; eauto).
    destruct (kgc_step k terms nl c s t id nd HK Ht Hc) as (s' & r & rs & E & _). eauto.
  - destruct Hal as [Hint Hst]. unfold Core.kstep. cbn [Core.kops irun istep]. rewrite Hint.
    destruct (Alloc.step c good (i_al (k_i s)) a) as [[al' ob]|]; [|congruence]. cbn [kfin]. eauto.
Qed.

(** conversely a step that happens had the allocator's consent *)
Lemma kstep_alloc_ok c s a s' r rs : KInv c s -> kstep c s a = Some (s', r, rs) -> kalloc_ok c s a.
Proof.
  intros HK H. destruct (kstep_parts _ _ _ _ _ _ _ _ _ H) as (ops & i' & Ho & Hr & _).
  assert (Hrun : irun c (k_i s) ops <> None) by congruence. destruct s as [i cn tok hd].
  destruct a as [tid lvl ch|tid e|tid e|tid tid' e|tid e|t id|ia]; cbn [kalloc_ok]; auto.
  - apply (proj1 (cl_goi k terms nl c _ _ _ _ _ _ _ _ HK Ho)), Hrun.
  - intros (nd & Hc & Hz). destruct (cl_gc k terms nl c i cn tok hd t id nd HK Hc) as (ops' & Eo & Hen & _).
    rewrite Ho in Eo. injection Eo as <-. apply (proj1 Hen Hrun Hz).
  - cbn [Core.kops] in Ho. injection Ho as <-. cbn [irun istep k_i] in Hr. destruct (internal ia); [|discriminate]. split; [reflexivity|].
    cbn [k_i]. destruct (Alloc.step c good (i_al i) ia); [discriminate | discriminate].
Qed.

(** [kstep] is [None] IFF Conc's guard fails or the allocator refuses *)
Theorem kstep_some_iff c s a : KInv c s ->
  ((exists s' r rs, kstep c s a = Some (s', r, rs)) <-> kops s a <> None /\ kalloc_ok c s a).
Proof.
  intros HK. split.
  - intros (s' & r & rs & H). split; [|eapply kstep_alloc_ok; eauto].
    destruct (kstep_parts _ _ _ _ _ _ _ _ _ H) as (ops & i' & Ho & _). congruence.
  - intros [Ho Hal]. apply kstep_progress; assumption.
Qed.

(** the invariant carries [1 <= term c] (from [kinit], whose precondition it is): slot id 0 is a
    terminal's, and the id of every new node lies in the slot array behind the terminal slots *)
Lemma kinv_term c s : KInv c s -> (1 <= term c)%N.
Proof. intros ((HA & _) & _). apply (ainv_term c _ HA). Qed.

Theorem knew_id_in_array c s tid lvl ch s' id rs : KInv c s ->
  kstep c s (KGoi tid lvl ch) = Some (s', KRNew id, rs) ->
  (1 <= term c /\ term c <= Npos id < term c + cap c)%N.
Proof.
  intros HK H. split; [apply (kinv_term c s HK)|]. destruct HK as ((HA & _) & _).
  pose proof (goi_parts k terms nl _ _ _ _ _ _ _ _ H) as G. inversion G as [|hts fr pa Hfs Hi Ecn Er Ers|]. subst fr.
  destruct (istep_add_parts _ _ _ _ _ _ _ _ _ Hi) as (_ & al' & oid & pa' & Hal & Hres).
  destruct oid as [fr|]; [|destruct Hres as (? & _ & ?); discriminate].
  destruct Hres as [_ E']. injection E' as <- _. apply (alloc_safe _ _ _ _ _ _ HA Hal).
Qed.

End Total.
