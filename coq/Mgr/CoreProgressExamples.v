(** * STORECONC2 — non-vacuity of Mgr/CoreProgress.v.
      [kb_run]: a BCDD manager (1 terminal slot, capacity 4, chunk 2: slot ids 1..4; threads 0
      (guard) and 1 (worker), 2 levels): [KNot] (complement of an owned inner edge = tag flip of the
      token, of a terminal edge = nothing) next to every other action, incl. a collector step that
      removes a node whose child edges are complemented.
      [kx_retry_dead] / [kx_retry_none_dead]: the hypotheses of [retry_after_gc] hold on the run of
      Mgr/CoreExamples.v (full store, 6 entries): with node 6 dead the retry after the collection
      (collector 2, epilogue, then thread 0; or the collector thread itself without epilogue) gets
      slot 6; one action earlier (node 6 still referenced) nothing is dead and the retry fails again.
      [kx_progress]: the allocator's consent is what [kstep_progress] needs. *)

From Coq Require Import List NArith ZArith PArith Bool Arith Lia.
From OxiVerif Require Import DD.Table Mgr.Alloc Mgr.AllocExamples Mgr.AllocProofs Mgr.AllocThms Tbl.RcStore Mgr.IndexStore
  Mgr.IndexStoreProofs Mgr.Conc Mgr.ConcExamples Mgr.ConcGc Mgr.ConcGcCount Mgr.Core Mgr.CoreProofs Mgr.CoreThms
  Mgr.CoreExamples Mgr.CoreProgress.
Import ListNotations.

(** ** BCDD *)

Definition kb_cfg : cfg := mkCfg 4 2 1 0 0.

Lemma kb_cfg_ok : (1 <= chunk kb_cfg)%N /\ (1 <= term kb_cfg)%N.
Proof. cbv. split; discriminate. Qed.

Definition kb_sched : list kact :=
  [KInternal (APrepare 0); KInternal (ABind 1);
   KGoi 0 1 [BT false; BT true];        (* x1 = node 1 (slot id 1 = TERMINALS) *)
   KRetain 0 (B 1 false);
   KNot 0 (B 1 false);                  (* not x1: the token's tag flips, no store operation *)
   KGoi 0 0 [B 1 false; B 1 true];      (* node 2: both edge values move into it *)
   KGoi 1 1 [BT false; BT true];        (* thread 1 finds node 1 *)
   KNot 1 (B 1 false);
   KMove 1 0 (B 1 true);
   KNot 0 (BT false);                   (* complement of a terminal edge *)
   KRelease 0 (B 2 false);              (* node 2 is dead *)
   KGc 1 2].                            (* removed: its edge values (one complemented) are released *)

Definition kb_results : list kres :=
  [KRObs (OPrep true); KRObs OUnit; KRNew 1; KRUnit; KRUnit; KRNew 2; KRFound 1; KRUnit; KRUnit; KRUnit; KRUnit; KRRemoved].

Definition kb_store_results : list ires :=
  [IRObs (OPrep true); IRObs OUnit; IRAdded 1 PSharedChunk; IRCount 3; IRAdded 2 PLocalRange; IRCount 4;
   IRReleased false; IRRemoved 0 [2; 3] false].

Theorem kb_run :
  exists s, krun KBcdd bc_terms 2 kb_cfg (kinit kb_cfg 2) kb_sched = Some (s, kb_results, kb_store_results) /\
    kreachable KBcdd bc_terms 2 kb_cfg s /\ KInv KBcdd bc_terms 2 kb_cfg s /\ klink_b s = true /\
    cinv_b KBcdd bc_terms 2 (kproj s) = true /\ iinv_b kb_cfg (k_i s) = true /\
    no_leak kb_store_results = true /\
    kproj s = mkCst [(1%positive, mkC 1 [BT false; BT true] 1%N)] [(0, B 1 true)] /\
    In (ANot 0 (B 1 false)) (kacts_list kb_sched kb_results) /\
    Conc.run KBcdd bc_terms 2 cempty (kacts_list kb_sched kb_results) = Some (kproj s).
Proof.
  destruct (krun KBcdd bc_terms 2 kb_cfg (kinit kb_cfg 2) kb_sched) as [[[s xs] rs]|] eqn:E; [|vm_compute in E; discriminate].
  pose proof E as E0. vm_compute in E0. injection E0 as Es <- <-.
  assert (Hre : kreachable KBcdd bc_terms 2 kb_cfg s).
  { exists 2%nat, kb_sched, kb_results, kb_store_results. destruct kb_cfg_ok. auto. }
  exists s. split; [reflexivity|]. split; [exact Hre|]. split; [apply kreachable_inv; exact Hre|].
  subst s. repeat split; try (vm_compute; reflexivity). vm_compute. auto 10.
Qed.

(** a tag flip is not an action of a BDD manager: Conc's guard fails, so does the core's *)
Example kb_not_bdd : forall s tid e, kops KBdd kx_terms 4 s (KNot tid e) = None.
Proof. reflexivity. Qed.

(** ** the retry after a whole collection: the hypotheses of [retry_after_gc] *)

(** node 6 is dead (the state after `drop` of the last handle): the retry succeeds *)
Theorem kx_retry_dead :
  exists s, kreachable KBdd kx_terms 4 ex_cfg s /\ KInv KBdd kx_terms 4 ex_cfg s /\ 2 < nthreads s /\
    length (k_cn s) = N.to_nat (cap ex_cfg) /\ kdead s 6 /\ garbage 4 (kproj s) = [6%positive] /\
    let s1 := kcollect KBdd kx_terms 4 ex_cfg 2 s in
    (* the collector's epilogue, then thread 0 *)
    (exists s2 xs2 rs2 l s' rs,
       krun KBdd kx_terms 4 ex_cfg s1 (map KInternal [AGcFlush 2]) = Some (s2, xs2, rs2) /\
       nth_error (th (i_al (k_i s2))) 0 = Some l /\ others_idle_p ex_cfg (i_al (k_i s2)) 0 /\
       find_shape (k_cn s2) 0 [KT0; KT1] = None /\
       kstep KBdd kx_terms 4 ex_cfg s2 (KGoi 0 0 [KT0; KT1]) = Some (s', KRNew 6, rs)) /\
    (* the collector thread itself, no epilogue *)
    (exists l s' rs,
       nth_error (th (i_al (k_i s1))) 2 = Some l /\ others_idle_p ex_cfg (i_al (k_i s1)) 2 /\
       find_shape (k_cn s1) 0 [KT0; KT1] = None /\
       kstep KBdd kx_terms 4 ex_cfg s1 (KGoi 2 0 [KT0; KT1]) = Some (s', KRNew 6, rs)).
Proof.
  destruct (krun KBdd kx_terms 4 ex_cfg (kinit ex_cfg 3) (firstn 21 kx_sched)) as [[[s xs] rs]|] eqn:E; [|vm_compute in E; discriminate].
  assert (Hre : kreachable KBdd kx_terms 4 ex_cfg s).
  { exists 3%nat, (firstn 21 kx_sched), xs, rs. destruct ex_cfg_ok. auto. }
  pose proof (kreachable_inv _ _ _ _ _ Hre) as HK.
  exists s. split; [exact Hre|]. split; [exact HK|].
  vm_compute in E. injection E as Es _ _.
  assert (Hg : garbage 4 (kproj s) = [6%positive]) by (rewrite <- Es; vm_compute; reflexivity).
  split; [rewrite <- Es; vm_compute; auto|].
  split; [rewrite <- Es; vm_compute; reflexivity|].
  split; [apply (garbage_dead KBdd kx_terms 4 s 6 (proj1 (proj2 HK))); rewrite Hg; left; reflexivity|].
  split; [exact Hg|].
  clear Hre HK Hg. subst s. cbv zeta. split.
  - do 6 eexists. split; [vm_compute; reflexivity|]. split; [vm_compute; reflexivity|].
    split; [apply others_idle_spec; vm_compute; reflexivity|]. split; vm_compute; reflexivity.
  - do 3 eexists. split; [vm_compute; reflexivity|].
    split; [apply others_idle_spec; vm_compute; reflexivity|]. split; vm_compute; reflexivity.
Qed.

(** one action earlier: thread 0 still holds its edge to node 6, the store is full and nothing is
    dead: the collection removes nothing and the retry fails again *)
Theorem kx_retry_none_dead :
  exists s, kreachable KBdd kx_terms 4 ex_cfg s /\ 2 < nthreads s /\
    length (k_cn s) = N.to_nat (cap ex_cfg) /\ garbage 4 (kproj s) = [] /\ (forall id, ~ kdead s id) /\
    let s1 := kcollect KBdd kx_terms 4 ex_cfg 2 s in
    exists s2 xs2 rs2 l s' rs,
      krun KBdd kx_terms 4 ex_cfg s1 (map KInternal [AGcFlush 2]) = Some (s2, xs2, rs2) /\
      nth_error (th (i_al (k_i s2))) 0 = Some l /\ others_idle_p ex_cfg (i_al (k_i s2)) 0 /\
      find_shape (k_cn s2) 0 [KT0; KT1] = None /\
      kstep KBdd kx_terms 4 ex_cfg s2 (KGoi 0 0 [KT0; KT1]) = Some (s', KROom, rs).
Proof.
  destruct (krun KBdd kx_terms 4 ex_cfg (kinit ex_cfg 3) (firstn 20 kx_sched)) as [[[s xs] rs]|] eqn:E; [|vm_compute in E; discriminate].
  assert (Hre : kreachable KBdd kx_terms 4 ex_cfg s).
  { exists 3%nat, (firstn 20 kx_sched), xs, rs. destruct ex_cfg_ok. auto. }
  pose proof (kreachable_inv _ _ _ _ _ Hre) as HK.
  exists s. split; [exact Hre|].
  vm_compute in E. injection E as Es _ _.
  assert (Hg : garbage 4 (kproj s) = []) by (rewrite <- Es; vm_compute; reflexivity).
  split; [rewrite <- Es; vm_compute; auto|].
  split; [rewrite <- Es; vm_compute; reflexivity|].
  split; [exact Hg|].
  split; [intros id D; apply (garbage_dead KBdd kx_terms 4 s id (proj1 (proj2 HK))) in D; rewrite Hg in D; exact D|].
  clear Hre HK Hg. subst s. cbv zeta.
  do 6 eexists. split; [vm_compute; reflexivity|]. split; [vm_compute; reflexivity|].
  split; [apply others_idle_spec; vm_compute; reflexivity|]. split; vm_compute; reflexivity.
Qed.

(** ** progress: Conc's guard of a `get_or_insert` holds for any thread id; the step happens for
    the threads that exist (thread 0) and not for thread 7: the allocator refuses ([kalloc_ok]) *)
Theorem kx_progress :
  exists s, kreachable KBdd kx_terms 4 ex_cfg s /\ nthreads s = 3 /\
    kops KBdd kx_terms 4 s (KGoi 7 0 [KT0; KT1]) <> None /\ ~ kalloc_ok ex_cfg s (KGoi 7 0 [KT0; KT1]) /\
    kstep KBdd kx_terms 4 ex_cfg s (KGoi 7 0 [KT0; KT1]) = None /\
    kops KBdd kx_terms 4 s (KGoi 0 0 [KT0; KT1]) <> None /\ kalloc_ok ex_cfg s (KGoi 0 0 [KT0; KT1]) /\
    kstep KBdd kx_terms 4 ex_cfg s (KGoi 0 0 [KT0; KT1]) <> None.
Proof.
  destruct (krun KBdd kx_terms 4 ex_cfg (kinit ex_cfg 3) (firstn 24 kx_sched)) as [[[s xs] rs]|] eqn:E; [|vm_compute in E; discriminate].
  assert (Hre : kreachable KBdd kx_terms 4 ex_cfg s).
  { exists 3%nat, (firstn 24 kx_sched), xs, rs. destruct ex_cfg_ok. auto. }
  exists s. split; [exact Hre|]. clear Hre. vm_compute in E. injection E as <- _ _.
  split; [reflexivity|]. split; [vm_compute; discriminate|]. split.
  { intros H. assert (Hlt : 7 < 3) by (apply H; vm_compute; reflexivity). lia. }
  split; [vm_compute; reflexivity|]. split; [vm_compute; discriminate|]. split; [intros _; vm_compute; auto|].
  vm_compute. discriminate.
Qed.
