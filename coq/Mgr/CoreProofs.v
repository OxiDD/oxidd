(** * STORECONC — the composed model Mgr/Core.v: invariant [KInv] = IndexStore's [IInv] /\ Conc's
      [CInv] on the projection /\ the link [KLink]; every action of every thread
      (a) never releases a last edge ([no_leak]: the step STOREREF had to exclude never happens),
      (b) projects to a run of Mgr/Conc.v in which [AGoi]'s id argument is the id the store returned,
      (c) keeps [KInv]  ([kstep_spec], [krun_spec], [kreachable_inv]).
    Each action is analysed once ([cl_goi] .. [cl_internal]): given Conc's guard, what the store makes
    of the script (and exactly when the allocator lets it run), what [kfin] makes of the answer, and
    that the result is a linked state one step of Conc.v away.  [kstep_spec] here, totality and
    progress in Mgr/CoreProgress.v read their statements off these. *)

From Coq Require Import List NArith ZArith PArith Bool Arith Lia FMapPositive Permutation.
From OxiVerif Require Import Base.ListFacts DD.Table Mgr.Alloc Tbl.RcStore Mgr.IndexStore Mgr.IndexStoreProofs
  Mgr.Conc Mgr.ConcBase Mgr.ConcProofs Mgr.Core Mgr.CoreBase Mgr.CoreLink.
From OxiVerif Require Mgr.AllocInv Mgr.AllocProofs Mgr.IndexStoreEquiv Mgr.ConcGcProofs.
Import ListNotations.

Arguments N.add : simpl never.
Arguments N.sub : simpl never.

Lemma nodup_nat_complete l : NoDup l -> nodup_nat l = true.
Proof.
  induction 1 as [|x l Hx Hn IH]; cbn [nodup_nat]; [reflexivity|]. rewrite IH, andb_true_r. apply negb_true_iff.
  destruct (existsb (Nat.eqb x) l) eqn:E; [|reflexivity]. apply existsb_exists in E. destruct E as (y & Hy & Ey).
  apply Nat.eqb_eq in Ey. subst. contradiction.
Qed.

Lemma ainv_term c s : AllocInv.AInv c s -> (1 <= term c)%N.
Proof. intros (fs & ls & W). apply (AllocInv.w_term _ _ _ _ W). Qed.

(** the slot id of a new node is not 0: the terminal slots come first *)
Lemma alloc_id_pos c s t s' id pa : AllocInv.AInv c s -> Alloc.step c good s (AAlloc t) = Some (s', OAlloc (Some id) pa) ->
  (term c <= id)%N /\ id <> 0%N.
Proof.
  intros HA H. destruct (AllocProofs.alloc_safe _ _ _ _ _ _ HA H) as (Hr & _). split; [apply Hr|].
  apply (AllocInv.in_arr_nonzero c id (ainv_term c s HA) Hr).
Qed.

Section Proofs.
Variable k : kind.
Variable terms : list (N * N).
Variable nl : nat.

Notation xstep := (Conc.step k terms nl).
Notation xrun := (Conc.run k terms nl).
Notation CInv := (ConcProofs.CInv k terms nl).
Notation kops := (kops k terms nl).
Notation kstep := (kstep k terms nl).
Notation krun := (krun k terms nl).
Notation kstep_ops := (kstep_ops k terms nl).

Definition KInv (c : cfg) (s : kst) : Prop := IInv c (k_i s) /\ CInv (kproj s) /\ KLink s.

Lemma kinit_inv c n : (1 <= chunk c)%N -> (1 <= term c)%N -> KInv c (kinit c n).
Proof.
  intros Hc Ht. split; [apply iinit_inv; assumption|]. split; [apply CInv_empty|].
  unfold KLink. cbn. constructor; cbn; try tauto; try constructor.
  - discriminate.
  - intros j H. exfalso. apply H. apply nget_empty.
  - discriminate.
Qed.

(** what one step consists of *)
Lemma kstep_parts c s a s' r rs : kstep c s a = Some (s', r, rs) ->
  exists ops i', kops s a = Some ops /\ irun c (k_i s) ops = Some (i', rs) /\ kfin s a i' rs = Some (s', r).
Proof.
  unfold Core.kstep. destruct (kops s a) as [ops|] eqn:E1; [|discriminate].
  destruct (irun c (k_i s) ops) as [[i' rs']|] eqn:E2; [|discriminate].
  destruct (kfin s a i' rs') as [[s1 r1]|] eqn:E; [|discriminate]. intros H. inversion H; subst.
  exists ops, i'. auto.
Qed.

Definition StepOK (s : kst) (a : kact) (s' : kst) (r : kres) (rs : list ires) : Prop :=
  no_leak rs = true /\ xrun (kproj s) (kacts a r) = Some (kproj s') /\ KLink s'.

Lemma inner_ids_In ch j : In j (inner_ids ch) -> exists e, In e ch /\ eref e = RN j.
Proof.
  induction ch as [|e r IH]; cbn [inner_ids]; [intros []|]. destruct (eref e) as [x|id] eqn:E.
  - intros H. destruct (IH H) as (e' & A & B). exists e'. split; [right; exact A | exact B].
  - intros [<-|H]; [exists e; split; [left; reflexivity | exact E]|].
    destruct (IH H) as (e' & A & B). exists e'. split; [right; exact A | exact B].
Qed.

Lemma no_leak_app a b : no_leak (a ++ b) = no_leak a && no_leak b.
Proof. unfold no_leak. apply forallb_app. Qed.

Lemma no_leak_released (hts : list nat) : no_leak (map (fun _ => IRReleased false) hts) = true.
Proof. induction hts; cbn; auto. Qed.

(** a failed `get_or_insert`, seen from Conc.v: the consumed child edges are released *)
Lemma oom_run tid ch : forall cn tok hts tok1,
  take_toks3 tid ch tok = Some (hts, tok1) ->
  (forall e x, In e ch -> eref e = RT x -> cref_ok_b terms cn (RT x) = true) ->
  xrun (mkCst cn (map fst tok)) (map (ARelease tid) ch) = Some (mkCst (dec_children cn ch) (map fst tok1)).
Proof.
  induction ch as [|e r IH]; intros cn tok hts tok1 HT Hok; cbn [take_toks3 map Conc.run dec_children] in *.
  - inversion HT; subst. reflexivity.
  - cbn [Conc.step Conc.cn Conc.cown]. destruct (eref e) as [x|id] eqn:Ee.
    + rewrite (Hok e x (or_introl eq_refl) Ee). cbn [dec_ref]. apply (IH _ _ _ _ HT).
      intros e' x' He'. apply Hok. right. exact He'.
    + destruct (take_tok3 (tid, e) tok) as [[h l1]|] eqn:E1; [|discriminate].
      destruct (take_toks3 tid r l1) as [[hs2 l2]|] eqn:E2; [|discriminate]. inversion HT; subst.
      rewrite take_tok3_proj, E1. cbn [dec_ref]. apply (IH _ _ _ _ E2).
      intros e' x' He' Ex. specialize (Hok e' x' (or_intror He') Ex). exact Hok.
Qed.

Lemma node_pre_terms cn lvl ch : node_pre_b k terms nl cn lvl ch = true ->
  forall cn' e x, In e ch -> eref e = RT x -> cref_ok_b terms cn' (RT x) = true.
Proof.
  unfold node_pre_b. intros H cn' e x He Ex. repeat (apply andb_prop in H; destruct H as [H ?]).
  rewrite forallb_forall in H2. specialize (H2 e He). apply andb_prop in H2. destruct H2 as [H2 _].
  rewrite Ex in H2. exact H2.
Qed.

(** ** the actions, one by one *)

Definition Done (c : cfg) (s : kst) (a : kact) (ops : list iop) : Prop :=
  exists i' rs s' r, irun c (k_i s) ops = Some (i', rs) /\ kfin s a i' rs = Some (s', r) /\ k_i s' = i' /\
    StepOK s a s' r rs.

(** [Done] for the scripts that the allocator may refuse: IF the store runs the script ... *)
Definition Fin (c : cfg) (s : kst) (a : kact) (ops : list iop) : Prop :=
  forall i' rs, irun c (k_i s) ops = Some (i', rs) ->
    exists s' r, kfin s a i' rs = Some (s', r) /\ k_i s' = i' /\ StepOK s a s' r rs.

Lemma done_fin c s a ops : Done c s a ops -> Fin c s a ops.
Proof. intros (i' & rs & s' & r & Hr & Hf) i2 rs2 E. rewrite Hr in E. injection E as <- <-. eauto. Qed.

Lemma done_runs c s a ops : Done c s a ops -> irun c (k_i s) ops <> None.
Proof. intros (i' & rs & s' & r & Hr & _). congruence. Qed.

Lemma done_nil c s a s' r : kfin s a (k_i s) [] = Some (s', r) -> k_i s' = k_i s ->
  xrun (kproj s) (kacts a r) = Some (kproj s') -> KLink s' -> Done c s a [].
Proof. intros Hf Hi Hx HL. exists (k_i s), [], s', r. split; [reflexivity|]. split; [exact Hf|]. split; [exact Hi|]. split; [reflexivity|]. split; assumption. Qed.

Lemma cl_internal c i cn tok hd a ops :
  KLink (mkK i cn tok hd) -> kops (mkK i cn tok hd) (KInternal a) = Some ops -> Fin c (mkK i cn tok hd) (KInternal a) ops.
Proof.
  intros HL Ho i' rs Hr. injection Ho as <-. cbn [irun istep k_i] in Hr.
  destruct (internal a); [|discriminate].
  destruct (Alloc.step c good (i_al i) a) as [[al' ob]|]; [|discriminate]. injection Hr as <- <-.
  do 2 eexists. split; [reflexivity|]. split; [reflexivity|]. split; [reflexivity|]. split; [reflexivity | exact HL].
Qed.

Lemma cl_retain c i cn tok hd tid e ops :
  KInv c (mkK i cn tok hd) -> kops (mkK i cn tok hd) (KRetain tid e) = Some ops -> Done c (mkK i cn tok hd) (KRetain tid e) ops.
Proof.
  intros (HI & _ & HL) Ho. unfold KLink in HL. cbn [k_i k_cn k_tok k_hd] in HL. cbn [Core.kops k_cn k_hd k_tok] in Ho.
  destruct (eref e) as [x|id] eqn:Ee.
  - destruct (cref_ok_b terms cn (RT x)) eqn:Hok; [|discriminate]. injection Ho as <-.
    apply done_nil with (s' := mkK i cn tok hd) (r := KRUnit); [cbn [kfin]; rewrite Ee; reflexivity | reflexivity | | exact HL].
    cbn [kacts Conc.run Conc.step kproj Conc.cn Conc.cown k_cn k_tok]. rewrite Ee, Hok. reflexivity.
  - destruct (can_borrow_b nl (kproj (mkK i cn tok hd)) e) eqn:Hb; [|discriminate].
    destruct (hfind id hd) as [ht|] eqn:Hht; [|discriminate]. injection Ho as <-.
    destruct (hd_stored _ _ _ _ _ _ HL Hht) as (Hf1 & _ & p & rc & Hn).
    destruct (IndexStoreEquiv.fresh_h_spec 0 (i_hs i)) as [_ Hfr].
    do 4 eexists. split; [unfold kh1; cbn [irun istep k_i]; rewrite Hf1, Hfr, Hn; reflexivity|].
    split; [cbn [kfin]; rewrite Ee; reflexivity|]. split; [reflexivity|]. split; [reflexivity|]. split.
    + cbn [kacts Conc.run Conc.step kproj Conc.cn Conc.cown k_cn k_tok]. rewrite Ee. cbn [kproj k_cn k_tok] in Hb. rewrite Hb. reflexivity.
    + unfold KLink, kh1. cbn [k_i k_cn k_tok k_hd i_hs i_own i_nodes].
      destruct HI as (_ & _ & _ & HO). eapply link_retain; eauto.
Qed.

Lemma cl_release c i cn tok hd tid e ops :
  KInv c (mkK i cn tok hd) -> kops (mkK i cn tok hd) (KRelease tid e) = Some ops -> Done c (mkK i cn tok hd) (KRelease tid e) ops.
Proof.
  intros (HI & _ & HL) Ho. unfold KLink in HL. cbn [k_i k_cn k_tok k_hd] in HL. cbn [Core.kops k_cn k_hd k_tok] in Ho.
  destruct (eref e) as [x|id] eqn:Ee.
  - destruct (cref_ok_b terms cn (RT x)) eqn:Hok; [|discriminate]. injection Ho as <-.
    apply done_nil with (s' := mkK i cn tok hd) (r := KRUnit); [cbn [kfin]; rewrite Ee; reflexivity | reflexivity | | exact HL].
    cbn [kacts Conc.run Conc.step kproj Conc.cn Conc.cown k_cn k_tok]. rewrite Ee, Hok. reflexivity.
  - destruct (take_tok3 (tid, e) tok) as [[h tok']|] eqn:HT; [|discriminate]. injection Ho as <-.
    assert (HT2 : take_toks3 tid [e] tok = Some ([h], tok')) by (cbn [take_toks3]; rewrite Ee, HT; reflexivity).
    pose proof HI as (_ & _ & HR & HO).
    destruct (link_release _ _ _ _ _ _ _ _ HR HO HL HT2) as (i1 & E1 & _ & _ & _ & _ & _ & L1 & Hown & _).
    pose proof (irun_releases c [] [h] i i1 E1 Hown) as Hrun. cbn [map app irun] in Hrun.
    do 4 eexists. split; [exact Hrun|]. split; [cbn [kfin k_tok]; rewrite Ee, HT; reflexivity|].
    split; [reflexivity|]. split; [reflexivity|]. split.
    + cbn [kacts Conc.run Conc.step kproj Conc.cn Conc.cown k_cn k_tok]. rewrite Ee, take_tok3_proj, HT. reflexivity.
    + unfold KLink. cbn [k_i k_cn k_tok k_hd]. cbn [dec_children dec_ref] in L1. rewrite Ee in L1. exact L1.
Qed.

Lemma cl_move c i cn tok hd tid tid' e ops :
  KLink (mkK i cn tok hd) -> kops (mkK i cn tok hd) (KMove tid tid' e) = Some ops -> Done c (mkK i cn tok hd) (KMove tid tid' e) ops.
Proof.
  intros HL Ho. unfold KLink in HL. cbn [k_i k_cn k_tok k_hd] in HL. cbn [Core.kops k_cn k_hd k_tok] in Ho.
  destruct (eref e) as [x|id] eqn:Ee.
  - destruct (cref_ok_b terms cn (RT x)) eqn:Hok; [|discriminate]. injection Ho as <-.
    apply done_nil with (s' := mkK i cn tok hd) (r := KRUnit); [cbn [kfin]; rewrite Ee; reflexivity | reflexivity | | exact HL].
    cbn [kacts Conc.run Conc.step kproj Conc.cn Conc.cown k_cn k_tok]. rewrite Ee, Hok. reflexivity.
  - destruct (take_tok3 (tid, e) tok) as [[h tok']|] eqn:HT; [|discriminate]. injection Ho as <-.
    apply done_nil with (s' := mkK i cn ((tid', e, h) :: tok') hd) (r := KRUnit).
    + cbn [kfin k_tok]. rewrite Ee, HT. reflexivity.
    + reflexivity.
    + cbn [kacts Conc.run Conc.step kproj Conc.cn Conc.cown k_cn k_tok]. rewrite Ee, take_tok3_proj, HT. reflexivity.
    + unfold KLink. cbn [k_i k_cn k_tok k_hd]. eapply link_retoken; [exact HL | exact HT | reflexivity].
Qed.

Lemma cl_not c i cn tok hd tid e ops :
  KLink (mkK i cn tok hd) -> kops (mkK i cn tok hd) (KNot tid e) = Some ops -> Done c (mkK i cn tok hd) (KNot tid e) ops.
Proof.
  intros HL Ho. unfold KLink in HL. cbn [k_i k_cn k_tok k_hd] in HL. cbn [Core.kops k_cn k_hd k_tok] in Ho.
  destruct (is_bcdd k) eqn:Hk; [|discriminate]. destruct (eref e) as [x|id] eqn:Ee.
  - destruct (cref_ok_b terms cn (RT x)) eqn:Hok; [|discriminate]. injection Ho as <-.
    apply done_nil with (s' := mkK i cn tok hd) (r := KRUnit); [cbn [kfin]; rewrite Ee; reflexivity | reflexivity | | exact HL].
    cbn [kacts Conc.run Conc.step kproj Conc.cn Conc.cown k_cn k_tok]. rewrite Hk, Ee, Hok. reflexivity.
  - destruct (take_tok3 (tid, e) tok) as [[h tok']|] eqn:HT; [|discriminate]. injection Ho as <-.
    apply done_nil with (s' := mkK i cn ((tid, mkEdge (eref e) (negb (etag e)), h) :: tok') hd) (r := KRUnit).
    + cbn [kfin k_tok]. rewrite Ee, HT. reflexivity.
    + reflexivity.
    + cbn [kacts Conc.run Conc.step kproj Conc.cn Conc.cown k_cn k_tok]. rewrite Hk, Ee, take_tok3_proj, HT. reflexivity.
    + unfold KLink. cbn [k_i k_cn k_tok k_hd]. eapply link_retoken; [exact HL | exact HT | cbn [snd eref]; congruence].
Qed.

(** `get_or_insert`.  Only the allocation can be refused: the script runs iff thread [tid] exists
    when the node is new *)
Lemma cl_goi c i cn tok hd tid lvl ch ops :
  KInv c (mkK i cn tok hd) -> kops (mkK i cn tok hd) (KGoi tid lvl ch) = Some ops ->
  (irun c i ops <> None <-> (find_shape cn lvl ch = None -> tid < length (th (i_al i)))) /\
  Fin c (mkK i cn tok hd) (KGoi tid lvl ch) ops.
Proof.
  intros HK Ho. pose proof HK as (HI & HC & HL). unfold KLink in HL. cbn [k_i k_cn k_tok k_hd] in HL.
  cbn [Core.kops k_cn k_hd k_tok] in Ho.
  destruct (node_pre_b k terms nl cn lvl ch) eqn:Hpre; [|discriminate].
  destruct (take_toks3 tid ch tok) as [[hts tok1]|] eqn:HT; [|discriminate].
  pose proof HI as (HA & _ & HR & HO).
  destruct (IndexStoreEquiv.fresh_h_spec 0 (i_hs i)) as [_ Hfr1].
  destruct (IndexStoreEquiv.fresh_h_spec (fresh_h 0 (i_hs i)) (i_hs i)) as [Hne12 Hfr2].
  unfold kh2, kh1 in *. cbn [k_i] in *.
  assert (Hproj : take_toks tid ch (map fst tok) = Some (map fst tok1)) by (rewrite take_toks3_proj, HT; reflexivity).
  destruct (find_shape cn lvl ch) as [id|] eqn:Hfs.
  - (* found: the consumed edges are released, the table's edge is cloned *)
    destruct (hfind id hd) as [ht|] eqn:Hht; [|discriminate]. injection Ho as <-.
    destruct (link_release _ _ _ _ _ _ _ _ HR HO HL HT) as (i1 & E1 & Ea & HR1 & Eh & Eo & Ed & L1 & Hown & Hnd & Hbnd).
    destruct (hd_stored _ _ _ _ _ _ L1 Hht) as (Hf1 & _ & p & rc & Hn).
    assert (Hfr : afind (fresh_h 0 (i_hs i)) (i_hs i1) = None).
    { rewrite Eh, afind_rm_all; [exact Hfr1|]. intros Hin. apply (Hbnd _ Hin Hfr1). }
    assert (D : Done c (mkK i cn tok hd) (KGoi tid lvl ch) (map IRelease hts ++ [IRetain ht (fresh_h 0 (i_hs i))])).
    { do 4 eexists. split.
      { cbn [k_i]. rewrite (irun_releases c _ hts i i1 E1 Hown). cbn [irun istep]. rewrite Hf1, Hfr, Hn. reflexivity. }
      split; [cbn [kfin k_tok k_cn]; rewrite HT, Hfs; reflexivity|]. split; [reflexivity|].
      split; [rewrite no_leak_app, no_leak_released; reflexivity|]. split.
      - cbn [kacts Conc.run Conc.step kproj Conc.cn Conc.cown k_cn k_tok]. rewrite Hpre, Hproj, Hfs. reflexivity.
      - unfold KLink, kh1. cbn [k_i k_cn k_tok k_hd i_hs i_own i_nodes].
        destruct (release_all_inv c hts i i1 HI E1) as [(_ & _ & _ & HO1) _]. eapply link_retain; eauto. }
    split; [split; [intros _ E; discriminate E | intros _; apply (done_runs _ _ _ _ D)] | apply done_fin; exact D].
  - (* new: `add_node` *)
    injection Ho as <-. split; [split|].
    + intros Hr _. cbn [irun] in Hr. destruct (istep c i _) as [[i1 x]|] eqn:Hi; [|exfalso; apply Hr; reflexivity].
      destruct (istep_add_parts _ _ _ _ _ _ _ _ _ Hi) as (_ & al' & oid & pa & Hal & _). cbn [Alloc.step] in Hal.
      destruct (nth_error (th (i_al i)) tid) eqn:El; [|discriminate]. apply nth_error_Some. congruence.
    + intros Hal. specialize (Hal eq_refl). cbn [irun istep].
      destruct (toks_facts _ _ _ _ _ _ _ _ HL HT) as (Hnd2 & _ & Hown & Hbnd & _).
      assert (G : negb (bound (i_hs i) (fresh_h 0 (i_hs i))) && negb (bound (i_hs i) (fresh_h (fresh_h 0 (i_hs i)) (i_hs i))) &&
                  negb (fresh_h 0 (i_hs i) =? fresh_h (fresh_h 0 (i_hs i)) (i_hs i))%nat && forallb (client_h i) hts && nodup_nat hts = true).
      { unfold bound at 1 2. rewrite Hfr1, Hfr2. cbn [negb andb].
        destruct (Nat.eqb_spec (fresh_h 0 (i_hs i)) (fresh_h (fresh_h 0 (i_hs i)) (i_hs i))) as [E|_]; [congruence|]. cbn [negb andb].
        apply andb_true_intro. split.
        - apply forallb_forall. intros h Hh. unfold client_h, bound. rewrite (Hown h Hh).
          destruct (afind h (i_hs i)) eqn:E; [reflexivity | exfalso; apply (Hbnd h Hh E)].
        - apply nodup_nat_complete. eapply NoDup_app_l, NoDup_app_r. exact Hnd2. }
      rewrite G. destruct (AllocProofs.alloc_enabled c (i_al i) tid HA Hal) as (al' & o & Hstep). rewrite Hstep.
      destruct (IndexStoreEquiv.alloc_obs _ _ _ _ _ Hstep) as [(oid & pa & ->) _]. destruct oid as [fr|]; [discriminate|].
      destruct (link_release (mkI al' (i_nodes i) (i_hs i) (i_own i)) _ _ _ _ _ _ _ HR HO HL HT) as (i1 & E1 & _).
      rewrite E1. discriminate.
    + intros i' rs Hr. cbn [irun k_i] in Hr.
      destruct (istep c i _) as [[i1 x]|] eqn:Hi; [|discriminate]. injection Hr as <- <-.
      destruct (istep_add_parts _ _ _ _ _ _ _ _ _ Hi) as (_ & al' & oid & pa & Hal & Hres). destruct oid as [fr|].
      * (* Ok: the slot id is not 0, the terminal slots come first *)
        destruct Hres as [-> ->]. destruct (alloc_id_pos _ _ _ _ _ _ HA Hal) as [_ Hnz]. destruct fr as [|frp]; [congruence|].
        destruct (alloc_fresh _ _ _ _ _ _ HI Hal) as (Hfree & _ & _).
        destruct (link_add i cn tok hd tid lvl ch hts tok1 frp _ _ (N.of_nat lvl) HO HL HT Hfr1 Hfr2 (not_eq_sym Hne12) Hfree) as [Hcf L2].
        do 2 eexists. split; [cbn [kfin k_tok k_cn]; rewrite HT, Hfs; reflexivity|]. split; [reflexivity|].
        split; [reflexivity|]. split; [|exact L2].
        cbn [kacts Conc.run Conc.step kproj Conc.cn Conc.cown k_cn k_tok]. rewrite Hpre, Hproj, Hfs, Hcf. reflexivity.
      * (* Err(OutOfMemory) *)
        destruct Hres as (lk & Hrel & ->).
        destruct (link_release (mkI al' (i_nodes i) (i_hs i) (i_own i)) _ _ _ _ _ _ _ HR HO HL HT) as (i2 & E1 & _ & _ & _ & _ & _ & L1 & _).
        rewrite E1 in Hrel. injection Hrel as <- <-.
        do 2 eexists. split; [cbn [kfin k_tok k_cn]; rewrite HT, Hfs; reflexivity|]. split; [reflexivity|].
        split; [reflexivity|]. split; [|exact L1].
        cbn [kacts kproj k_cn k_tok]. apply (oom_run _ _ _ _ _ _ HT). intros e x. apply (node_pre_terms _ _ _ Hpre).
Qed.

(** a table entry whose stored count is 1 can be removed: its child edges are not last edges *)
Lemma kinv_remove c i cn tok hd id nd ht p :
  KInv c (mkK i cn tok hd) -> cfind cn id = Some nd -> hfind id hd = Some ht ->
  nget (i_nodes i) (Npos id) = Some (p, 1%N) ->
  exists i1,
    release_all (mkI (i_al i) (ndel (i_nodes i) (Npos id)) (aremove ht (i_hs i)) (i_own i))
                (kids_of (Npos id) (i_own i)) = Some (i1, false) /\
    KLinkP (i_hs i1) (i_own i1) (i_nodes i1) (dec_children (cremove id cn) (cch nd)) tok (hremove id hd).
Proof.
  intros ((_ & _ & HR & HO) & HC & HL) Hc Hht Hn. apply (link_remove i cn tok hd id nd ht p HR HO HL); auto.
  - apply (ti_nodup _ _ _ _ (ci_tbl _ _ _ _ HC)).
  - intros j Hj. destruct (inner_ids_In _ _ Hj) as (e & He & Ee).
    destruct (child_live k terms nl _ id nd e j HC Hc He Ee) as (ndc & Hcj & _ & Hlt). cbn [kproj Conc.cn k_cn] in Hcj.
    split; [|congruence]. intros ->. rewrite Hc in Hcj. inversion Hcj; subst. lia.
Qed.

(** one iteration of `retain` on a table entry.  The entry goes iff its reported count is 0; only
    then is a slot freed, and the script runs iff the collector thread [t] exists *)
Lemma cl_gc c i cn tok hd t id nd :
  KInv c (mkK i cn tok hd) -> cfind cn id = Some nd ->
  exists ops, kops (mkK i cn tok hd) (KGc t id) = Some ops /\
    (irun c i ops <> None <-> (crc nd = 0%N -> t < length (th (i_al i)))) /\
    forall i' rs, irun c i ops = Some (i', rs) ->
      length (th (i_al i')) = length (th (i_al i)) /\
      exists s' r, kfin (mkK i cn tok hd) (KGc t id) i' rs = Some (s', r) /\ k_i s' = i' /\
        StepOK (mkK i cn tok hd) (KGc t id) s' r rs /\
        (if N.eqb (crc nd) 0 then r = KRRemoved else r = KRKept /\ s' = mkK i cn tok hd).
Proof.
  intros HK Hc. pose proof HK as (HI & HC & HL). unfold KLink in HL. cbn [k_i k_cn k_tok k_hd] in HL.
  assert (Hd : hfind id hd <> None) by (apply (kl_dom _ _ _ _ _ _ HL); congruence).
  destruct (hfind id hd) as [ht|] eqn:Hht; [|congruence].
  exists [IRemove t ht]. split; [cbn [Core.kops k_cn k_hd]; rewrite Hc, Hht; reflexivity|].
  pose proof HI as (_ & HLk & _). cbn [k_i] in HLk.
  destruct (kl_hd _ _ _ _ _ _ HL _ _ (hfind_In _ _ _ Hht)) as [Hf1 Hf2].
  destruct (proj1 (kl_agree _ _ _ _ _ _ HL) _ _ Hc) as [p Hn].
  cbn [irun istep]. unfold client_h, bound. rewrite Hf1, Hf2, Hn. cbn [andb negb].
  destruct (N.eqb_spec (crc nd + 1) 1) as [E1|E1].
  - assert (Hz : crc nd = 0%N) by lia. rewrite Hz. cbn [N.eqb]. rewrite E1 in Hn.
    destruct (kinv_remove c i cn tok hd id nd ht p HK Hc Hht Hn) as (i1 & Erel & L1). rewrite Erel. cbv beta iota.
    destruct (release_all_spec _ _ _ Erel) as (_ & Ea & _). cbn [i_al] in Ea. rewrite Ea.
    split; [split|].
    + intros Hr _. cbn [Alloc.step] in Hr. destruct (nth_error (th (i_al i)) t) eqn:El; [|exfalso; apply Hr; reflexivity].
      apply nth_error_Some. congruence.
    + intros Ht. destruct (IndexStoreEquiv.free_enabled c (i_al i) t (Npos id) (Ht eq_refl)) as (al' & o & Hfree); [apply HLk; congruence|].
      rewrite Hfree. discriminate.
    + intros i' rs Hr. destruct (Alloc.step c good (i_al i) (AFree t (Npos id))) as [[al' o]|] eqn:Hfree; [|discriminate].
      injection Hr as <- <-. cbn [i_al]. split; [apply (IndexStoreEquiv.free_threads _ _ _ _ _ _ Hfree)|].
      do 2 eexists. split; [cbn [kfin k_cn]; rewrite Hc; reflexivity|]. split; [reflexivity|].
      split; [|reflexivity]. split; [reflexivity|]. split; [|exact L1].
      cbn [kacts Conc.run Conc.step kproj Conc.cn Conc.cown k_cn k_tok]. rewrite Hc, Hz. reflexivity.
  - destruct (N.eqb_spec (crc nd) 0) as [Hz|Hz]; [lia|].
    split; [split; [intros _ Hz'; contradiction | discriminate]|].
    intros i' rs Hr. injection Hr as <- <-. split; [reflexivity|]. do 2 eexists. split; [reflexivity|]. split; [reflexivity|].
    split; [|split; reflexivity]. split; [reflexivity|]. split; [reflexivity | exact HL].
Qed.

(** ** every action of every thread (the result shapes [kfin] does not handle never occur) *)
Theorem kfin_ok c s a ops : KInv c s -> kops s a = Some ops -> Fin c s a ops.
Proof.
  intros HK Ho. destruct s as [i cn tok hd]. pose proof HK as (_ & _ & HL). destruct a.
  - apply (cl_goi _ _ _ _ _ _ _ _ _ HK Ho).
  - apply done_fin, cl_retain; assumption.
  - apply done_fin, cl_release; assumption.
  - apply done_fin, cl_move; assumption.
  - apply done_fin, cl_not; assumption.
  - destruct (cfind cn id) as [nd|] eqn:Hc; [|cbn [Core.kops k_cn] in Ho; rewrite Hc in Ho; discriminate].
    destruct (cl_gc c i cn tok hd t id nd HK Hc) as (ops' & Eo & _ & F). rewrite Ho in Eo. injection Eo as <-.
    intros i' rs Hr. destruct (F i' rs Hr) as (_ & s' & r & A & B & C & _). eauto.
  - apply cl_internal; assumption.
Qed.

Theorem kstep_spec c s a s' r rs : KInv c s -> kstep c s a = Some (s', r, rs) ->
  no_leak rs = true /\
  irun c (k_i s) (kstep_ops s a) = Some (k_i s', rs) /\
  xrun (kproj s) (kacts a r) = Some (kproj s') /\
  KInv c s'.
Proof.
  intros HK H. destruct (kstep_parts _ _ _ _ _ _ H) as (ops & i' & Ho & Hr & Hf).
  destruct (kfin_ok c s a ops HK Ho i' rs Hr) as (s2 & r2 & Hf2 & Ei & Hnl & Hrun & HL).
  rewrite Hf in Hf2. injection Hf2 as <- <-.
  split; [exact Hnl|]. split; [unfold Core.kstep_ops; rewrite Ho, Ei; exact Hr|]. split; [exact Hrun|].
  destruct HK as (HI & HC & _). split; [|split; [|exact HL]].
  - rewrite Ei. apply (irun_refines c ops (k_i s) i' rs HI Hr Hnl).
  - apply (ConcProofs.run_inv k terms nl _ _ _ HC Hrun).
Qed.

(** whole schedules *)
Theorem krun_spec c sched : forall s s' xs rs, KInv c s -> krun c s sched = Some (s', xs, rs) ->
  no_leak rs = true /\ xrun (kproj s) (kacts_list sched xs) = Some (kproj s') /\ KInv c s' /\
  length xs = length sched.
Proof.
  induction sched as [|a sched IH]; intros s s' xs rs HK H; cbn [Core.krun] in H.
  - inversion H; subst. cbn. auto.
  - destruct (kstep c s a) as [[[s1 x] rs1]|] eqn:E1; [|discriminate].
    destruct (krun c s1 sched) as [[[s2 xs2] rs2]|] eqn:E2; [|discriminate]. injection H as <- <- <-.
    destruct (kstep_spec _ _ _ _ _ _ HK E1) as (N1 & _ & R1 & K1).
    destruct (IH _ _ _ _ K1 E2) as (N2 & R2 & K2 & Hlen).
    split; [rewrite no_leak_app, N1, N2; reflexivity|]. split; [|split; [exact K2 | cbn; congruence]].
    cbn [kacts_list]. rewrite (ConcGcProofs.run_app k terms nl), R1. exact R2.
Qed.

Definition kreachable (c : cfg) (s : kst) : Prop :=
  exists n sched xs rs, (1 <= chunk c)%N /\ (1 <= term c)%N /\ krun c (kinit c n) sched = Some (s, xs, rs).

Theorem kreachable_inv c s : kreachable c s -> KInv c s.
Proof.
  intros (n & sched & xs & rs & Hc & Ht & H). eapply krun_spec; [apply kinit_inv; assumption | exact H].
Qed.

End Proofs.
