(** * STORECONC — the theorems about the composed model Mgr/Core.v that close the open ends of
      STOREREF (IndexStore.v) and C07 / C05-sm (Conc.v):
      [core_sim] / [core_transfer]  every run of the core from a new manager projects to a run of
                 Conc.v from [cempty] (the id argument of [AGoi] = the id the store returned), so
                 every statement about all reachable states of Conc.v holds for the projection;
      [core_no_leaking_drop]  no `drop_edge` of any action of any thread meets a last edge;
      [core_refines_store]    hence the store component of EVERY reachable core state runs inside
                 the refinement of STOREREF -- without side condition;
      [goi_oom_intact], [goi_oom_single]  OutOfMemory of `get_or_insert`;
      [ids_unambiguous]  the id of a new node is named by no table entry, token, child edge or
                 edge value. *)

From Coq Require Import List NArith ZArith PArith Bool Arith Lia FMapPositive Permutation.
From OxiVerif Require Mgr.AllocStep.
From OxiVerif Require Import DD.Table Mgr.Alloc Mgr.AllocProofs Tbl.RcStore Mgr.IndexStore Mgr.IndexStoreProofs
  Mgr.Conc Mgr.ConcBase Mgr.ConcProofs Mgr.Core Mgr.CoreBase Mgr.CoreLink Mgr.CoreProofs.
Import ListNotations.

Arguments N.add : simpl never.
Arguments N.sub : simpl never.

Section Thms.
Variable k : kind.
Variable terms : list (N * N).
Variable nl : nat.

Notation xrun := (Conc.run k terms nl).
Notation CInv := (ConcProofs.CInv k terms nl).
Notation kstep := (kstep k terms nl).
Notation krun := (krun k terms nl).
Notation kstep_ops := (kstep_ops k terms nl).
Notation KInv := (KInv k terms nl).
Notation kreachable := (kreachable k terms nl).
Notation rruns := (RcStore.aruns N N.eqb).

(** (a) *)
Theorem core_sim c n sched s xs rs : (1 <= chunk c)%N -> (1 <= term c)%N ->
  krun c (kinit c n) sched = Some (s, xs, rs) ->
  xrun cempty (kacts_list sched xs) = Some (kproj s) /\ length xs = length sched.
Proof.
  intros Hc Ht H. destruct (krun_spec k terms nl c sched _ _ _ _ (kinit_inv k terms nl c n Hc Ht) H) as (_ & R & _ & L).
  split; [exact R | exact L].
Qed.

Theorem core_transfer c (P : cst -> Prop) :
  (forall sched s, xrun cempty sched = Some s -> P s) -> forall s, kreachable c s -> P (kproj s).
Proof.
  intros HP s (n & sched & xs & rs & Hc & Ht & H). destruct (core_sim c n sched s xs rs Hc Ht H) as [R _]. exact (HP _ _ R).
Qed.

(** (b) *)
Theorem core_no_leaking_drop c s a s' r rs : kreachable c s -> kstep c s a = Some (s', r, rs) ->
  forall x, In x rs -> leaked x = false.
Proof.
  intros HR H x Hx. destruct (kstep_spec k terms nl c s a s' r rs (kreachable_inv k terms nl c s HR) H) as (Hnl & _).
  unfold no_leak in Hnl. rewrite forallb_forall in Hnl. apply negb_true_iff. apply Hnl. exact Hx.
Qed.

Theorem core_refines_store c s a s' r rs : kreachable c s -> kstep c s a = Some (s', r, rs) ->
  irun c (k_i s) (kstep_ops s a) = Some (k_i s', rs) /\
  IInv c (k_i s) /\ IInv c (k_i s') /\
  rruns (iabs (k_i s)) (flat_ops (kstep_ops s a) rs) (flat_res (kstep_ops s a) rs) (iabs (k_i s')).
Proof.
  intros HR H. pose proof (kreachable_inv k terms nl c s HR) as HK.
  destruct (kstep_spec k terms nl c s a s' r rs HK H) as (Hnl & Hrun & _ & _).
  destruct HK as (HI & _). destruct (irun_refines c _ _ _ _ HI Hrun Hnl) as [HI' R]. auto.
Qed.

Inductive goi_eff (c : cfg) (s : kst) (tid lvl : nat) (ch : list edge) (s' : kst) : kres -> list ires -> Prop :=
| GE_found id rs (Hf : find_shape (k_cn s) lvl ch = Some id) : goi_eff c s tid lvl ch s' (KRFound id) rs
| GE_new hts fr pa (Hf : find_shape (k_cn s) lvl ch = None)
    (Hi : istep c (k_i s) (IAdd tid (kh1 s) (kh2 s) (N.of_nat lvl) hts) = Some (k_i s', IRAdded (Npos fr) pa))
    (Hcn : k_cn s' = (fr, mkC lvl ch 1%N) :: k_cn s) :
    goi_eff c s tid lvl ch s' (KRNew fr) [IRAdded (Npos fr) pa]
| GE_oom hts lk (Hf : find_shape (k_cn s) lvl ch = None)
    (Hi : istep c (k_i s) (IAdd tid (kh1 s) (kh2 s) (N.of_nat lvl) hts) = Some (k_i s', IROom lk))
    (Hcn : k_cn s' = dec_children (k_cn s) ch) (Hhd : k_hd s' = k_hd s) :
    goi_eff c s tid lvl ch s' KROom [IROom lk].

Lemma goi_parts c s tid lvl ch s' r rs : kstep c s (KGoi tid lvl ch) = Some (s', r, rs) -> goi_eff c s tid lvl ch s' r rs.
Proof.
  intros H. destruct (kstep_parts _ _ _ _ _ _ _ _ _ H) as (ops & i' & Ho & Hr & Hf).
  cbn [Core.kops] in Ho. cbn [kfin] in Hf.
  destruct (node_pre_b k terms nl (k_cn s) lvl ch); [|discriminate].
  destruct (take_toks3 tid ch (k_tok s)) as [[hts tok1]|]; [|discriminate].
  destruct (find_shape (k_cn s) lvl ch) as [id|] eqn:Hfs; [injection Hf as <- <-; apply GE_found; exact Hfs|].
  injection Ho as <-. cbn [irun] in Hr.
  destruct (istep c (k_i s) (IAdd tid (kh1 s) (kh2 s) (N.of_nat lvl) hts)) as [[i1 x]|] eqn:E; [|discriminate].
  injection Hr as <- <-.
  destruct x as [[|fr] pa|lk| | | | | |]; try discriminate Hf; injection Hf as <- <-;
    [eapply GE_new | eapply GE_oom]; eauto.
Qed.

(** (c) OutOfMemory leaves the manager intact: no entry enters or leaves the table or the store,
    levels and children are unchanged, the hash-table edges are the same, the only count changes
    are the releases of the child edges that the call consumed -- the state is the one after the
    thread's own [ARelease]s of them -- and the invariant holds *)
Theorem goi_oom_intact c s tid lvl ch s' rs : KInv c s ->
  kstep c s (KGoi tid lvl ch) = Some (s', KROom, rs) ->
  k_cn s' = dec_children (k_cn s) ch /\ cn_shape (k_cn s') = cn_shape (k_cn s) /\ k_hd s' = k_hd s /\
  (forall j, nget (i_nodes (k_i s')) j <> None <-> nget (i_nodes (k_i s)) j <> None) /\
  xrun (kproj s) (map (ARelease tid) ch) = Some (kproj s') /\
  (exists lk, rs = [IROom lk]) /\ KInv c s'.
Proof.
  intros HK H. destruct (kstep_spec k terms nl c s _ s' _ rs HK H) as (Hnl & Hrun & Hx & HK').
  pose proof (goi_parts _ _ _ _ _ _ _ _ H) as G. inversion G as [| |hts lk Hfs Hi E1 E2 Er Ers]. subst rs.
  split; [exact E1|]. split; [rewrite E1; apply cn_shape_dec_children|]. split; [exact E2|]. split.
  - destruct (istep_add_parts _ _ _ _ _ _ _ _ _ Hi) as (_ & al' & oid & pa & _ & Hres).
    destruct oid; [destruct Hres; discriminate|]. destruct Hres as (lk2 & Erel & E). injection E as <-.
    cbn [no_leak forallb leaked] in Hnl. rewrite andb_true_r in Hnl. apply negb_true_iff in Hnl. subst lk.
    apply (release_all_spec _ _ _ Erel).
  - split; [exact Hx|]. split; [eauto | exact HK'].
Qed.

(** the table and the store hold the same nodes: [nlive] = number of table entries (dead or not) *)
Lemma nlive_table c s : KInv c s -> nlive c (i_al (k_i s)) = length (k_cn s).
Proof.
  intros (HI & HC & HL). destruct (live_listing c _ HI) as [Hnd Hin]. unfold nlive.
  rewrite <- (map_length fst (k_cn s)), <- (map_length Npos (map fst (k_cn s))). apply Permutation_length.
  apply NoDup_Permutation; [exact Hnd | |].
  - apply FinFun.Injective_map_NoDup; [intros a b E; inversion E; reflexivity|]. apply (ti_nodup _ _ _ _ (ci_tbl _ _ _ _ HC)).
  - intros j. rewrite Hin. cbn [iabs a_map]. destruct (kl_agree _ _ _ _ _ _ HL) as [A1 A2]. split.
    + intros Hj. destruct (A2 j Hj) as (id & -> & Hc). apply in_map. destruct (cfind (k_cn s) id) as [nd|] eqn:E; [|congruence].
      eapply cfind_Some_keys; eauto.
    + intros Hj. apply in_map_iff in Hj. destruct Hj as (id & <- & Hid).
      destruct (cfind (k_cn s) id) as [nd|] eqn:E; [|apply cfind_None_keys in E; contradiction].
      destruct (A1 _ _ E) as [p Hp]. cbn [kproj Conc.cn] in *. congruence.
Qed.

(** one thread (no slot parked with another thread): `get_or_insert` of a node that is not in the
    table fails IFF all capacity slots hold table entries, dead ones included *)
Theorem goi_oom_single c s tid l lvl ch s' r rs : KInv c s ->
  nth_error (th (i_al (k_i s))) tid = Some l -> others_idle_p c (i_al (k_i s)) tid ->
  kstep c s (KGoi tid lvl ch) = Some (s', r, rs) -> find_shape (k_cn s) lvl ch = None ->
  (r = KROom <-> length (k_cn s) = N.to_nat (cap c)).
Proof.
  intros HK Hl Ho H Hfs. rewrite <- (nlive_table c s HK).
  destruct HK as (HI & _).
  destruct (goi_parts _ _ _ _ _ _ _ _ H) as [id rs Hf|hts fr pa _ Hi _|hts lk _ Hi _ _]; [congruence| |];
    rewrite <- (iadd_oom_single c _ tid l _ _ _ _ _ _ HI Hl Ho Hi); split; intros E; try discriminate; eauto.
  destruct E as [lk E]. discriminate.
Qed.

(** (d) the id of a new node is not in use: no table entry, no token of any thread, no child edge
    of a stored node, no hash-table edge and no edge value of the store names it *)
Theorem ids_unambiguous c s tid lvl ch s' id rs : KInv c s ->
  kstep c s (KGoi tid lvl ch) = Some (s', KRNew id, rs) ->
  cfind (k_cn s) id = None /\ hfind id (k_hd s) = None /\
  (forall x, In x (k_tok s) -> eref (snd (fst x)) <> RN id) /\
  (forall j nd e, cfind (k_cn s) j = Some nd -> In e (cch nd) -> eref e <> RN id) /\
  (forall h, afind h (i_hs (k_i s)) <> Some (Npos id)) /\
  (exists pa, rs = [IRAdded (Npos id) pa]) /\ cfind (k_cn s') id = Some (mkC lvl ch 1%N).
Proof.
  intros HK H. pose proof (goi_parts _ _ _ _ _ _ _ _ H) as G. inversion G as [|hts fr pa Hfs Hi Ecn Er Ers|]. subst fr rs.
  destruct HK as (HI & HC & HL).
  assert (Hfree : nget (i_nodes (k_i s)) (Npos id) = None).
  { destruct (istep_add_parts _ _ _ _ _ _ _ _ _ Hi) as (_ & al' & oid & pa' & Hal & Hres).
    destruct oid as [fr|]; [|destruct Hres as (? & _ & ?); discriminate].
    destruct Hres as [_ E']. injection E' as <- _. apply (alloc_fresh _ _ _ _ _ _ HI Hal). }
  pose proof HI as (_ & _ & HR & _).
  assert (Hnoh : forall h, afind h (i_hs (k_i s)) <> Some (Npos id)).
  { intros h Hh. apply (AInv_live N N.eqb N.eqb_eq _ _ _ HR Hh). exact Hfree. }
  assert (Hcf : cfind (k_cn s) id = None).
  { destruct (cfind (k_cn s) id) as [nd|] eqn:Ec; [|reflexivity]. destruct (proj1 (kl_agree _ _ _ _ _ _ HL) _ _ Ec). congruence. }
  split; [exact Hcf|]. split; [|split; [|split; [|split; [exact Hnoh|split]]]].
  - destruct (hfind id (k_hd s)) eqn:Eh; [|reflexivity]. exfalso. apply (proj2 (kl_dom _ _ _ _ _ _ HL id)); congruence.
  - intros x Hx Ex. destruct (kl_tok _ _ _ _ _ _ HL x Hx) as (j & Ej & Hf & _). rewrite Ex in Ej. injection Ej as <-. apply (Hnoh _ Hf).
  - intros j nd e Hj He Ee. destruct (child_live k terms nl _ j nd e id HC Hj He Ee) as (ndc & Hc & _). cbn [kproj Conc.cn] in Hc. congruence.
  - eauto.
  - rewrite Ecn. cbn [cfind]. rewrite Pos.eqb_refl. reflexivity.
Qed.

(** ** a whole collection keeps the invariant; the retry after it *)
Lemma kgc_try_inv c t s id : KInv c s -> KInv c (kgc_try k terms nl c t s id).
Proof.
  intros HK. unfold kgc_try. destruct (kstep c s (KGc t id)) as [[[s' r] rs]|] eqn:E; [|exact HK].
  apply (kstep_spec k terms nl c s _ s' r rs HK E).
Qed.

Lemma kgc_ids_inv c t ids : forall s, KInv c s -> KInv c (fold_left (kgc_try k terms nl c t) ids s).
Proof. induction ids as [|id r IH]; intros s HK; cbn [fold_left]; [exact HK | apply IH, kgc_try_inv, HK]. Qed.

Theorem kcollect_inv c t s : KInv c s -> KInv c (kcollect k terms nl c t s).
Proof.
  unfold kcollect. generalize (seq 0 nl). intros ls. revert s. induction ls as [|l r IH]; intros s HK; cbn [fold_left]; [exact HK|].
  apply IH. unfold kgc_level. apply kgc_ids_inv. exact HK.
Qed.

(** PARTIAL (see notes/STORECONC.md): after a whole collection by thread [t] the manager is intact and
    a retry (one thread holds slots) fails iff the table still fills the store.  Not proved in
    general: [kproj (kcollect c t s) = collect (kproj s)] (shown on the example [kx_collect]), which
    with C05_sm_collect_count would turn the right-hand side into "no node was unreachable". *)
Theorem retry_after_gc_partial c t s s1 : KInv c s -> s1 = kcollect k terms nl c t s ->
  KInv c s1 /\
  forall tid l lvl ch s' r rs,
    nth_error (th (i_al (k_i s1))) tid = Some l -> others_idle_p c (i_al (k_i s1)) tid ->
    kstep c s1 (KGoi tid lvl ch) = Some (s', r, rs) -> find_shape (k_cn s1) lvl ch = None ->
    (r = KROom <-> length (k_cn s1) = N.to_nat (cap c)).
Proof.
  intros HK ->. pose proof (kcollect_inv c t s HK) as HK1. split; [exact HK1|].
  intros tid l lvl ch s' r rs Hl Ho H Hfs. eapply goi_oom_single; eauto.
Qed.

End Thms.
