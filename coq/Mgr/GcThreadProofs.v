(** * GcThreadProofs: invariant and theorems of Mgr/GcThread.v (see notes/GCTHREAD.md) *)

From Coq Require Import List NArith ZArith Bool Arith Lia.
From OxiVerif Require Import Mgr.Alloc Mgr.GcThread.
Import ListNotations.

(** ** the two rules are the ones of the allocator model (tied to the code by the ALLOC run) *)

Lemma trigger_rule_alloc : forall c v s t l d s' o,
  get_slot_from_shared c v s t l d = Some (s', o) ->
  s_gc (sh s') = trigger_rule c (s_gc (sh s)) (s_count (sh s')).
Proof.
  intros c v s t l d s' o H. unfold get_slot_from_shared in H. unfold trigger_rule.
  repeat match type of H with
  | Some _ = Some _ => inversion H; subst; clear H; simpl; reflexivity
  | None = Some _ => discriminate H
  | context [match ?x with _ => _ end] => destruct x eqn:?
  end.
Qed.

Lemma reset_rule_alloc : forall c s t l,
  s_gc (sh (fst (gc_flush c s t l))) =
  reset_rule c (s_gc (sh s)) (s_count (sh (fst (gc_flush c s t l)))).
Proof.
  intros c s t l. unfold gc_flush, reset_rule. destruct (negb (l_next l =? 0)%N); reflexivity.
Qed.

(** ** counting *)

Lemma cntp_upd : forall p l t x y, nth_error l t = Some x ->
  cntp p (upd l t y) + b2n (p x) = cntp p l + b2n (p y).
Proof.
  intros p l. induction l as [|z l IH]; intros t x y H; destruct t; simpl in *; try discriminate.
  - inversion H; subst. unfold b2n. destruct (p x), (p y); lia.
  - specialize (IH _ _ y H). lia.
Qed.

Lemma cntp_upd3 : forall l t x, nth_error l t = Some x -> forall y,
  cntp a_sweeping (upd l t y) + b2n (a_sweeping x) = cntp a_sweeping l + b2n (a_sweeping y) /\
  cntp a_holds_s (upd l t y) + b2n (a_holds_s x) = cntp a_holds_s l + b2n (a_holds_s y) /\
  cntp a_holds_x (upd l t y) + b2n (a_holds_x x) = cntp a_holds_x l + b2n (a_holds_x y).
Proof. intros; repeat split; apply cntp_upd; assumption. Qed.

Lemma cntp_snoc : forall p l x, cntp p (l ++ [x]) = cntp p l + b2n (p x).
Proof. intros p l x. induction l; simpl; unfold b2n in *; [destruct (p x)|]; lia. Qed.

Lemma cntp_repeat_out : forall p n, p POut = false -> cntp p (repeat POut n) = 0.
Proof. intros p n H. induction n; simpl; [|rewrite H]; auto. Qed.

Lemma cntp_pos_nth : forall p l, 0 < cntp p l -> exists t x, nth_error l t = Some x /\ p x = true.
Proof.
  intros p l. induction l as [|z l IH]; simpl; intros H; [lia|].
  destruct (p z) eqn:E.
  - exists 0, z; auto.
  - destruct (IH ltac:(lia)) as (t & x & A & B). exists (S t), x; auto.
Qed.

Lemma nth_cntp_pos : forall p l t x, nth_error l t = Some x -> p x = true -> 0 < cntp p l.
Proof.
  intros p l. induction l as [|z l IH]; intros t x H E; destruct t; simpl in *; try discriminate.
  - inversion H; subst. rewrite E. lia.
  - specialize (IH _ _ H E). lia.
Qed.

(** two different threads with the predicate: the count is at least 2 *)
Lemma nth_cntp_two : forall p l t1 t2 x1 x2, t1 <> t2 ->
  nth_error l t1 = Some x1 -> nth_error l t2 = Some x2 -> p x1 = true -> p x2 = true -> 2 <= cntp p l.
Proof.
  intros p l. induction l as [|z l IH]; intros t1 t2 x1 x2 N H1 H2 E1 E2;
    destruct t1, t2; simpl in *; try discriminate; try congruence.
  - inversion H1; subst. rewrite E1. pose proof (nth_cntp_pos _ _ _ _ H2 E2). lia.
  - inversion H2; subst. rewrite E2. pose proof (nth_cntp_pos _ _ _ _ H1 E1). lia.
  - assert (t1 <> t2) by congruence. specialize (IH _ _ _ _ H H1 H2 E1 E2). lia.
Qed.

(** ** the invariant *)

Record Inv (c : cfg) (s : gst) : Prop := mkInv {
  i_sweep : sweeps s = b2n (g_ongoing s);
  i_read : b2n (c_holds (g_cpc s)) + cntp a_holds_s (g_app s) = g_readers s;
  i_write : cntp a_holds_x (g_app s) = b2n (g_writer s);
  i_rw : g_writer s = true -> g_readers s = 0;
  i_act : active s = true -> g_gc s = GTriggered;
  i_exit : g_cpc s = CExit -> g_sig s = SQuit;
  i_drop : g_dropping s <= g_refs s;
  i_dis : g_gc s = GDisabled <-> ~ (lwm c < hwm c)%Z
}.

Definition reachable (c : cfg) (s : gst) : Prop :=
  exists n sched, run c (init c n) sched = Some s.

Lemma init_inv : forall c n, Inv c (init c n).
Proof.
  intros c n. unfold init. split; unfold sweeps, active; simpl;
    rewrite ?cntp_repeat_out by reflexivity; auto; try discriminate.
  destruct (lwm c <? hwm c)%Z eqn:E; [apply Z.ltb_lt in E|apply Z.ltb_ge in E];
    split; intros; try discriminate; try lia; auto.
Qed.

Ltac use_upd :=
  match goal with
  | H : nth_error ?l ?t = Some ?x |- _ =>
    match goal with
    | |- context [upd l t ?y] =>
      let U1 := fresh "U" in let U2 := fresh "U" in let U3 := fresh "U" in
      destruct (cntp_upd3 l t x H y) as (U1 & U2 & U3); simpl in U1, U2, U3
    end
  | _ => idtac
  end.

Ltac inv_some H := first [discriminate H | injection H as <-].

Ltac fin :=
  unfold sweeps, active in *; simpl in *; use_upd;
  split; unfold sweeps, active; simpl;
  rewrite ?cntp_snoc; simpl;
  try solve [ lia | congruence | tauto | intros; lia | intros; congruence | intros; discriminate
            | intuition congruence | intuition lia ].

Lemma step_inv : forall c s a s', Inv c s -> step c s a = Some s' -> Inv c s'.
Proof.
  intros c s a s' [I1 I2 I3 I4 I5 I6 I7 I8] H.
  destruct s as [cnt gc sg og gcn bgn rd wr pc app refs dr].
  simpl in *.
  destruct a; simpl in H; unfold usable in H; simpl in H.
  - (* ASpawn *) inv_some H. fin.
  - (* AClone *) destruct (0 <? refs - dr) eqn:E; inv_some H. apply Nat.ltb_lt in E. fin.
  - (* ADropBegin *)
    destruct (0 <? refs - dr) eqn:E; [apply Nat.ltb_lt in E|discriminate].
    destruct (refs =? 1) eqn:E1; inv_some H.
    + destruct pc; fin.
    + fin.
  - (* ADropEnd *) destruct dr, refs; inv_some H. fin.
  - (* AEnterS *)
    destruct (nth_error app t) as [[]|] eqn:N; try discriminate.
    destruct wr; simpl in H; rewrite ?andb_false_r, ?andb_true_r in H; try discriminate.
    destruct (0 <? refs - dr); inv_some H. fin.
  - (* AEnterX *)
    destruct (nth_error app t) as [[]|] eqn:N; try discriminate.
    destruct wr; simpl in H; rewrite ?andb_false_r, ?andb_true_r in H; try discriminate.
    destruct (0 <? refs - dr); simpl in H; [|discriminate].
    destruct (rd =? 0) eqn:E; inv_some H. apply Nat.eqb_eq in E. subst. fin.
  - (* ALeave *)
    destruct (nth_error app t) as [[]|] eqn:N; inv_some H.
    + fin; try (intros W; specialize (I4 W); lia).
    + destruct wr; fin.
  - (* AAlloc *)
    destruct (nth_error app t) as [p|] eqn:N; try discriminate.
    destruct (in_manager p && (0 <? refs - dr)); inv_some H. unfold trigger_rule.
    destruct (gcst_eqb gc GInit && (hwm c <=? cnt + d)%Z) eqn:T; [|fin].
    destruct gc; try discriminate T. destruct pc; fin.
  - (* ACount *) inv_some H. fin.
  - (* AGcTry *)
    destruct (nth_error app t) as [[]|] eqn:N; try discriminate; destruct og; inv_some H;
      try solve [split; assumption]; fin.
  - (* AGcEnd *)
    destruct (nth_error app t) as [[]|] eqn:N; inv_some H; destruct og; fin.
  - (* CWait *) destruct pc; inv_some H. fin.
  - (* CCheck *) destruct pc; inv_some H. destruct sg; fin.
  - (* CEnter *) destruct pc; try discriminate. destruct wr; inv_some H. fin.
  - (* CTry *) destruct pc; try discriminate. destruct og; inv_some H; fin.
  - (* CEnd *) destruct pc; inv_some H. destruct og; fin.
  - (* CLeave *) destruct pc; inv_some H. fin; try (intros W; specialize (I4 W); lia).
  - (* CEpilogue *)
    destruct pc; inv_some H. unfold reset_rule.
    destruct gc; simpl; destruct (cnt + d <? lwm c)%Z; fin.
Qed.

Lemma run_closed : forall c (P : gst -> Prop),
  (forall s a s', P s -> step c s a = Some s' -> P s') ->
  forall sched s s', P s -> run c s sched = Some s' -> P s'.
Proof.
  intros c P Hstep sched. induction sched as [|a r IH]; simpl; intros s s' I H.
  - inversion H; subst; assumption.
  - destruct (step c s a) eqn:E; [|discriminate]. eapply IH; [eapply Hstep; eassumption|assumption].
Qed.

Lemma run_inv : forall c sched s s', Inv c s -> run c s sched = Some s' -> Inv c s'.
Proof. intros c. exact (run_closed c (Inv c) (step_inv c)). Qed.

Theorem reachable_inv : forall c s, reachable c s -> Inv c s.
Proof. intros c s (n & sched & H). eapply run_inv; [apply init_inv|exact H]. Qed.

Lemma run_app : forall c a b s, run c s (a ++ b) =
  match run c s a with Some s' => run c s' b | None => None end.
Proof.
  intros c a. induction a as [|x a IH]; simpl; intros; auto. destruct (step c s x); auto.
Qed.

Lemma reachable_run : forall c s sched s', reachable c s -> run c s sched = Some s' -> reachable c s'.
Proof.
  intros c s sched s' (n & sc & H) R. exists n, (sc ++ sched). rewrite run_app, H. exact R.
Qed.
