(** * GcThreadThms: what holds of the collector protocol (model Mgr/GcThread.v) in every reachable
    state / along every schedule.  See notes/GCTHREAD.md. *)

From Coq Require Import List NArith ZArith Bool Arith Lia.
From OxiVerif Require Import Mgr.Alloc Mgr.GcThread Mgr.GcThreadProofs.
Import ListNotations.

Ltac step_cases H :=
  repeat match type of H with
  | Some _ = Some _ => injection H as <-
  | None = Some _ => discriminate H
  | context [match ?x with _ => _ end] => destruct x eqn:?
  end.

Ltac open_step s a H :=
  destruct s as [cnt gc sg og gcn bgn rd wr pc app refs dr];
  destruct a; simpl in H; unfold usable in H; simpl in H.

(** reachable = after any schedule of any threads from a new manager with any number of threads *)
Theorem reachable_def : forall c s,
  reachable c s <-> exists n sched, run c (init c n) sched = Some s.
Proof. intros; reflexivity. Qed.

(** ** (a) at most one sweep at a time *)

Theorem at_most_one_sweep : forall c s, reachable c s ->
  sweeps s <= 1 /\ (sweeps s = 1 <-> g_ongoing s = true).
Proof.
  intros c s R. destruct (reachable_inv _ _ R) as [I1 _ _ _ _ _ _ _]. rewrite I1.
  destruct (g_ongoing s); simpl; split; try lia; split; congruence.
Qed.

(** the collector sweeps: no application thread is inside a sweep *)
Theorem coll_sweep_excludes_app : forall c s t p, reachable c s -> g_cpc s = CSweep ->
  nth_error (g_app s) t = Some p -> a_sweeping p = false.
Proof.
  intros c s t p R C N. destruct (at_most_one_sweep _ _ R) as [L _]. unfold sweeps in L.
  rewrite C in L. simpl in L. destruct (a_sweeping p) eqn:E; auto.
  pose proof (nth_cntp_pos _ _ _ _ N E). lia.
Qed.

(** two application threads are never both inside a sweep *)
Theorem app_sweeps_exclusive : forall c s t1 t2 p1 p2, reachable c s -> t1 <> t2 ->
  nth_error (g_app s) t1 = Some p1 -> nth_error (g_app s) t2 = Some p2 ->
  a_sweeping p1 = true -> a_sweeping p2 = false.
Proof.
  intros c s t1 t2 p1 p2 R D N1 N2 E1. destruct (at_most_one_sweep _ _ R) as [L _].
  unfold sweeps in L. destruct (a_sweeping p2) eqn:E2; auto.
  pose proof (nth_cntp_two _ _ _ _ _ _ D N1 N2 E1 E2). lia.
Qed.

(** ** (b) what the sweeping thread holds *)

(** the collector: the try-lock, a read lock (so: no writer, in particular no reordering and no
    exclusive-lock `gc`), and the state is `Triggered` *)
Theorem coll_sweep_holds : forall c s, reachable c s -> g_cpc s = CSweep ->
  g_ongoing s = true /\ 1 <= g_readers s /\ g_writer s = false /\ g_gc s = GTriggered /\
  (forall t p, nth_error (g_app s) t = Some p -> a_holds_x p = false).
Proof.
  intros c s R C. destruct (reachable_inv _ _ R) as [I1 I2 I3 I4 I5 _ _ _].
  unfold sweeps, active in *. rewrite C in *. simpl in *.
  assert (RD : 1 <= g_readers s) by lia.
  assert (W : g_writer s = false) by (destruct (g_writer s); auto; specialize (I4 eq_refl); lia).
  repeat split; auto.
  - destruct (g_ongoing s); auto. simpl in I1. lia.
  - intros t p N. destruct (a_holds_x p) eqn:E; auto.
    pose proof (nth_cntp_pos _ _ _ _ N E). rewrite W in I3. simpl in I3. lia.
Qed.

(** whenever the collector is past its wake-up test and before the end of its epilogue the state
    is `Triggered` (a background collection is never started in `Init` / `Disabled`) *)
Theorem coll_active_triggered : forall c s, reachable c s -> active s = true -> g_gc s = GTriggered.
Proof. intros c s R. apply (i_act _ _ (reachable_inv _ _ R)). Qed.

(** an application thread inside `Manager::gc` under the read lock *)
Theorem app_sweep_shared_holds : forall c s t, reachable c s -> nth_error (g_app s) t = Some PSweepS ->
  g_ongoing s = true /\ 1 <= g_readers s /\ g_writer s = false /\ g_cpc s <> CSweep.
Proof.
  intros c s t R N. destruct (reachable_inv _ _ R) as [I1 I2 I3 I4 _ _ _ _].
  pose proof (nth_cntp_pos a_sweeping _ _ _ N eq_refl) as P1.
  pose proof (nth_cntp_pos a_holds_s _ _ _ N eq_refl) as P2.
  unfold sweeps in I1.
  assert (O : g_ongoing s = true) by (destruct (g_ongoing s); auto; simpl in I1; lia).
  rewrite O in I1. simpl in I1.
  repeat split; auto; try lia.
  - destruct (g_writer s); auto. specialize (I4 eq_refl). lia.
  - intros C. rewrite C in I1. simpl in I1. lia.
Qed.

(** the same under the write lock: nobody else is inside the manager, the collector neither *)
Theorem app_sweep_excl_holds : forall c s t, reachable c s -> nth_error (g_app s) t = Some PSweepX ->
  g_ongoing s = true /\ g_writer s = true /\ g_readers s = 0 /\ c_holds (g_cpc s) = false.
Proof.
  intros c s t R N. destruct (reachable_inv _ _ R) as [I1 I2 I3 I4 _ _ _ _].
  pose proof (nth_cntp_pos a_sweeping _ _ _ N eq_refl) as P1.
  pose proof (nth_cntp_pos a_holds_x _ _ _ N eq_refl) as P2.
  unfold sweeps in I1.
  assert (O : g_ongoing s = true) by (destruct (g_ongoing s); auto; simpl in I1; lia).
  assert (W : g_writer s = true) by (destruct (g_writer s); auto; simpl in I3; lia).
  specialize (I4 W). repeat split; auto.
  destruct (c_holds (g_cpc s)); auto. simpl in I2. lia.
Qed.

(** ** (c) when the collector is triggered / woken *)

Theorem trigger_iff : forall c s a s', step c s a = Some s' ->
  ((g_gc s <> GTriggered /\ g_gc s' = GTriggered) <->
   exists t d, a = AAlloc t d /\ g_gc s = GInit /\ (hwm c <= g_cnt s + d)%Z).
Proof.
  intros c s a s' H. open_step s a H; step_cases H; simpl;
    try solve [split; [intros [A B]; congruence | intros (t0 & d0 & A & _); discriminate A]].
  - (* AAlloc *)
    unfold trigger_rule. destruct gc; simpl; try destruct (hwm c <=? cnt + d)%Z eqn:E;
      (split; [intros [A B]; try congruence | intros (t0 & d0 & A & B & C); try discriminate]).
    + exists t, d. apply Z.leb_le in E. auto.
    + split; congruence.
    + injection A as <- <-. apply Z.leb_gt in E. lia.
  - (* CEpilogue *)
    unfold reset_rule. split; [intros [A B]|intros (t0 & d0 & A & _); discriminate A].
    destruct gc; simpl in *; try destruct (cnt + d <? lwm c)%Z; simpl in *; congruence.
Qed.

(** the sleeping collector is woken exactly by a triggering allocation or by the `Quit` of the
    drop that sees `strong_count == 2` *)
Theorem wake_iff : forall c s a s', step c s a = Some s' -> g_cpc s = CWaiting ->
  (g_cpc s' = CWoken <->
   (exists t d, a = AAlloc t d /\ g_gc s = GInit /\ (hwm c <= g_cnt s + d)%Z) \/
   (a = ADropBegin /\ g_refs s = 1)).
Proof.
  intros c s a s' H W. open_step s a H; simpl in W; subst pc; step_cases H; simpl;
    try solve [split; [intros A; discriminate A
                      | intros [(t0 & d0 & A & _) | [A _]]; discriminate A]].
  - (* ADropBegin, refs = 1 *) apply Nat.eqb_eq in Heqb0. split; auto.
  - (* ADropBegin, refs <> 1 *) apply Nat.eqb_neq in Heqb0.
    split; [intros A; discriminate A | intros [(t0 & d0 & A & _) | [_ A]]; [discriminate A|congruence]].
  - (* AAlloc *)
    destruct gc; simpl; try destruct (hwm c <=? cnt + d)%Z eqn:E;
      (split; [intros A; try discriminate A
              | intros [(t0 & d0 & A & B & C) | [A _]]; try discriminate; try reflexivity]).
    + left. exists t, d. apply Z.leb_le in E. auto.
    + injection A as <- <-. apply Z.leb_gt in E. lia.
Qed.

(** the other direction of [wake_iff] for a collector that is NOT waiting: the notification is
    lost (the collector's program counter does not change) *)
Theorem notify_lost : forall c s t d s', step c s (AAlloc t d) = Some s' -> g_cpc s <> CWaiting ->
  g_cpc s' = g_cpc s.
Proof.
  intros c s t d s' H W. destruct s as [cnt gc sg og gcn bgn rd wr pc app refs dr].
  simpl in H. step_cases H; simpl in *; auto.
  match goal with |- (if ?b then _ else _) = _ => destruct b end; auto.
  destruct pc; simpl; try reflexivity. exfalso; apply W; reflexivity.
Qed.

(** ** (d) when `gc_state` returns to `Init` *)

Theorem reset_iff : forall c s a s', step c s a = Some s' ->
  ((g_gc s <> GInit /\ g_gc s' = GInit) <->
   exists d, a = CEpilogue d /\ g_cpc s = CEpi /\ g_gc s = GTriggered /\ (g_cnt s + d < lwm c)%Z).
Proof.
  intros c s a s' H. open_step s a H; step_cases H; simpl;
    try solve [split; [intros [A B]; congruence | intros (d0 & A & _); discriminate A]].
  - (* AAlloc *)
    unfold trigger_rule. split; [intros [A B]|intros (d0 & A & _); discriminate A].
    destruct gc; simpl in *; try destruct (hwm c <=? cnt + d)%Z; congruence.
  - (* CEpilogue *)
    unfold reset_rule. destruct gc; destruct (cnt + d <? lwm c)%Z eqn:E; simpl;
      (split; [intros [A B]; try congruence | intros (d0 & A & B & C & D); try discriminate]).
    + exists d. apply Z.ltb_lt in E. auto.
    + split; congruence.
    + injection A as <-. apply Z.ltb_ge in E. lia.
Qed.

Lemma disabled_step : forall c s a s', step c s a = Some s' ->
  (g_gc s' = GDisabled <-> g_gc s = GDisabled).
Proof.
  intros c s a s' H. open_step s a H; step_cases H; simpl; try tauto.
  - unfold trigger_rule. destruct gc; destruct (hwm c <=? cnt + d)%Z; simpl; split; congruence.
  - unfold reset_rule. destruct gc; destruct (cnt + d <? lwm c)%Z; simpl; split; congruence.
Qed.

(** from `Triggered` to `Init`: the schedule contains an epilogue of the collector that saw a
    count below the low-water mark *)
Theorem resume_needs_epilogue : forall c sched s s', run c s sched = Some s' ->
  g_gc s = GTriggered -> g_gc s' = GInit ->
  exists pre d post s1 s2, sched = pre ++ CEpilogue d :: post /\ run c s pre = Some s1 /\
    step c s1 (CEpilogue d) = Some s2 /\ g_cpc s1 = CEpi /\ g_gc s1 = GTriggered /\
    (g_cnt s1 + d < lwm c)%Z /\ g_gc s2 = GInit.
Proof.
  intros c sched. induction sched as [|a r IH]; simpl; intros s s' H T I.
  - injection H as <-. congruence.
  - destruct (step c s a) as [s1|] eqn:E; [|discriminate].
    destruct (g_gc s1) eqn:G.
    + apply (disabled_step _ _ _ _ E) in G. congruence.
    + assert (X : g_gc s <> GInit /\ g_gc s1 = GInit) by (split; congruence).
      apply (reset_iff _ _ _ _ E) in X. destruct X as (d & A & B & C & D). subst a.
      exists [], d, r, s, s1. simpl. auto 10.
    + destruct (IH _ _ H G I) as (pre & d & post & x1 & x2 & A & B & C).
      exists (a :: pre), d, post, x1, x2. simpl. rewrite E. subst r. auto.
Qed.

(** [stuck] (= `Triggered` while the collector is not on its way to an epilogue) is absorbing:
    no action of any thread leaves it; no background collection starts any more *)
Lemma stuck_step : forall c s a s', stuck s = true -> step c s a = Some s' ->
  stuck s' = true /\ g_bgcount s' = g_bgcount s.
Proof.
  intros c s a s' S H. unfold stuck, active in *. open_step s a H; simpl in *;
    destruct gc; simpl in S; try discriminate S;
    step_cases H; simpl; auto; try discriminate S;
    try (destruct pc; simpl in *; auto; discriminate).
  destruct sg; simpl in *; auto; discriminate.
Qed.

Theorem stuck_forever : forall c sched s s', stuck s = true -> run c s sched = Some s' ->
  stuck s' = true /\ g_gc s' = GTriggered /\ g_bgcount s' = g_bgcount s.
Proof.
  intros c sched s s' S H.
  destruct (run_closed c (fun x => stuck x = true /\ g_bgcount x = g_bgcount s)) with (3 := H) as [S' B]; auto.
  - intros x a x' [Sx Bx] E. destruct (stuck_step _ _ _ _ Sx E). split; congruence.
  - repeat split; auto. unfold stuck in S'. destruct (g_gc s'); simpl in S'; congruence.
Qed.

(** in `Triggered` the collector is either on its way to an epilogue or the state is stuck *)
Theorem triggered_dichotomy : forall s, g_gc s = GTriggered -> active s = true \/ stuck s = true.
Proof. intros s G. unfold stuck. rewrite G. simpl. destruct (active s); auto. Qed.

(** how a stuck state arises: a triggering allocation whose notification is lost, or an epilogue
    that does not see a count below the low-water mark *)
Theorem stuck_entry : forall c s a s', Inv c s -> step c s a = Some s' ->
  stuck s = false -> stuck s' = true ->
  (exists t d, a = AAlloc t d /\ g_gc s = GInit /\ (hwm c <= g_cnt s + d)%Z /\
     (g_cpc s <> CWaiting \/ g_sig s = SQuit)) \/
  (exists d, a = CEpilogue d /\ g_gc s = GTriggered /\ (lwm c <= g_cnt s + d)%Z) \/
  (a = CCheck /\ g_sig s = SQuit) \/
  (a = ADropBegin /\ g_refs s = 1 /\ g_cpc s = CWoken).
Proof.
  intros c s a s' I H S0 S1. pose proof (i_act _ _ I) as I5. unfold stuck, active in *.
  open_step s a H; simpl in *; step_cases H; simpl in *;
    try (rewrite S0 in S1; discriminate S1).
  - (* ADropBegin refs = 1 *)
    apply Nat.eqb_eq in Heqb0. destruct pc; simpl in *; try (rewrite S0 in S1; discriminate S1).
    right; right; right; auto.
  - (* AAlloc *)
    unfold trigger_rule in *. destruct gc; simpl in *; try discriminate S1.
    + destruct (hwm c <=? cnt + d)%Z eqn:E; simpl in *; try discriminate S1.
      left. exists t, d. apply Z.leb_le in E. repeat split; auto.
      destruct sg; auto. left. intros ->. simpl in S1. discriminate S1.
    + rewrite S0 in S1; discriminate S1.
  - (* CCheck *) destruct sg; simpl in *; [rewrite andb_false_r in S1; discriminate|].
    right; right; left; auto.
  - (* CEpilogue *)
    right; left. exists d. specialize (I5 eq_refl). subst gc. unfold reset_rule in S1. simpl in S1.
    destruct (cnt + d <? lwm c)%Z eqn:E; simpl in S1; [discriminate|]. apply Z.ltb_ge in E. auto.
Qed.

(** ** (e) the quit signal *)

Theorem quit_sent_iff : forall c s a s', step c s a = Some s' -> g_sig s = SRun ->
  (g_sig s' = SQuit <-> a = ADropBegin /\ g_refs s = 1).
Proof.
  intros c s a s' H R. open_step s a H; simpl in R; subst sg; step_cases H; simpl;
    try solve [split; [intros A; discriminate A | intros [A _]; discriminate A]].
  - apply Nat.eqb_eq in Heqb0. split; auto.
  - apply Nat.eqb_neq in Heqb0. split; [discriminate|intros [_ A]; congruence].
Qed.

Lemma sig_quit_step : forall c s a s', step c s a = Some s' -> g_sig s = SQuit -> g_sig s' = SQuit.
Proof. intros c s a s' H Q. open_step s a H; step_cases H; simpl in *; auto. Qed.

(** a collector inside `wait` has no step of its own *)
Theorem waiting_no_coll_step : forall c s a, g_cpc s = CWaiting -> is_coll a = true -> step c s a = None.
Proof.
  intros c s a W C. destruct s as [cnt gc sg og gcn bgn rd wr pc app refs dr]. simpl in W. subst pc.
  destruct a; simpl in *; try discriminate C; reflexivity.
Qed.

(** without a usable handle no application action that notifies is enabled *)
Lemma dead_step : forall c s a s', usable s = 0 -> step c s a = Some s' ->
  usable s' = 0 /\ g_sig s' = g_sig s /\ (is_coll a = false -> g_cpc s' = g_cpc s).
Proof.
  intros c s a s' U H. unfold usable in U. open_step s a H; simpl in U; try rewrite U in H; simpl in H;
    rewrite ?andb_false_r in H; simpl in H;
    step_cases H; unfold usable; simpl; repeat split; auto; try discriminate.
  simpl in Heqb. rewrite andb_false_r in Heqb. discriminate.
Qed.

(** no handle left and the collector inside `wait`: it sleeps for ever (thread and store leak) *)
Theorem asleep_forever : forall c sched s s', usable s = 0 -> g_cpc s = CWaiting ->
  run c s sched = Some s' -> g_cpc s' = CWaiting /\ usable s' = 0 /\ g_sig s' = g_sig s.
Proof.
  intros c sched s s' U W H.
  apply (run_closed c (fun x => g_cpc x = CWaiting /\ usable x = 0 /\ g_sig x = g_sig s)) with (3 := H); auto.
  intros x a x' (Wx & Ux & Sx) E.
  destruct (is_coll a) eqn:C; [rewrite (waiting_no_coll_step _ _ _ Wx C) in E; discriminate|].
  destruct (dead_step _ _ _ _ Ux E) as (A & B & D). specialize (D C). repeat split; congruence.
Qed.

Lemma quit_missed_step : forall c s a s', quit_missed s = true -> step c s a = Some s' ->
  quit_missed s' = true.
Proof.
  intros c s a s' Q H. unfold quit_missed in *.
  destruct (g_sig s) eqn:G; [discriminate|]. apply andb_prop in Q. destruct Q as [U P].
  apply Nat.eqb_eq in U. destruct (dead_step _ _ _ _ U H) as (A & B & D).
  rewrite B, G, A. simpl.
  destruct (is_coll a) eqn:C; [|rewrite (D eq_refl); exact P].
  clear A B D. open_step s a H; simpl in *; try discriminate C; step_cases H; simpl in *; auto; discriminate.
Qed.

(** [quit_missed] is absorbing: the collector never terminates *)
Theorem quit_missed_forever : forall c sched s s', quit_missed s = true -> run c s sched = Some s' ->
  quit_missed s' = true /\ g_cpc s' <> CExit.
Proof.
  intros c sched s s' Q H.
  pose proof (run_closed c _ (quit_missed_step c) sched s s' Q H) as Q'.
  split; auto. unfold quit_missed in Q'. intros E. rewrite E in Q'.
  destruct (g_sig s'); [discriminate|]. rewrite andb_false_r in Q'. discriminate.
Qed.

Lemma quit_seen_step : forall c s a s', quit_seen s = true -> step c s a = Some s' -> quit_seen s' = true.
Proof.
  intros c s a s' Q H. unfold quit_seen in *. open_step s a H; simpl in *;
    destruct sg; try discriminate Q; destruct pc; try discriminate Q;
    step_cases H; simpl; auto;
    match goal with |- context [if ?b then _ else _] => destruct b end; reflexivity.
Qed.

(** [quit_seen] is absorbing, and the collector's only step from `CWoken` is the `break` *)
Theorem quit_seen_forever : forall c sched s s', quit_seen s = true -> run c s sched = Some s' ->
  quit_seen s' = true.
Proof.
  intros c. exact (run_closed c _ (quit_seen_step c)).
Qed.

Theorem quit_seen_exits : forall c s, quit_seen s = true -> g_cpc s = CWoken ->
  (exists s', step c s CCheck = Some s' /\ g_cpc s' = CExit) /\
  (forall a, is_coll a = true -> a <> CCheck -> step c s a = None).
Proof.
  intros c s Q W. unfold quit_seen in Q. destruct s as [cnt gc sg og gcn bgn rd wr pc app refs dr].
  simpl in *. subst pc. destruct sg; [discriminate|]. split.
  - eexists. split; [reflexivity|reflexivity].
  - intros a C N. destruct a; simpl in *; try discriminate C; try reflexivity. congruence.
Qed.

(** the exact condition under which the `Quit` of the last handle is seen: the collector is inside
    `wait` (or already notified) at the moment of the quit's `notify_one` (see the header of
    GcThread.v for the placement of the merged step); in every other case it is missed *)
Theorem quit_outcome : forall c s s', Inv c s -> step c s ADropBegin = Some s' ->
  g_sig s = SRun -> g_refs s = 1 ->
  g_sig s' = SQuit /\ usable s' = 0 /\
  (quit_seen s' = true <-> (g_cpc s = CWaiting \/ g_cpc s = CWoken)) /\
  (quit_missed s' = true <-> ~ (g_cpc s = CWaiting \/ g_cpc s = CWoken)).
Proof.
  intros c s s' I H R F. pose proof (i_exit _ _ I) as I6. pose proof (i_drop _ _ I) as I7.
  unfold quit_seen, quit_missed, usable.
  destruct s as [cnt gc sg og gcn bgn rd wr pc app refs dr]. simpl in *. subst sg refs.
  unfold usable in H. simpl in H.
  destruct dr; simpl in H; [|discriminate H].
  injection H as <-. simpl.
  destruct pc; simpl; repeat split; try tauto; try congruence;
    try solve [intros [A|A]; discriminate A | intros A; exfalso; apply A; auto
              | intros A; discriminate A
              | intros _ [A|A]; discriminate A
              | specialize (I6 eq_refl); discriminate I6].
Qed.
