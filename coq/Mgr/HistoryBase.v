(** * Transport lemmas for the manager state machine (Mgr/History.v)

    How the invariants and denotations of the per-operation packages behave
    under the state changes that are not "run an algorithm":

    - [widen s k hs]: [k] levels appended at the bottom and the handle list
      replaced ([set_handles] is the case [k = 0], [add_vars_model] the case
      [hs = s_handles s]): well-formedness, [Den], [bfun_of], both cache
      invariants are preserved;
    - [gc_model]: computes exactly [collected] of Mgr/OomGc.v (the restriction
      to the part reachable from the handles);
    - [set_var_order_model]: [BddOK] and the functions over variables of all
      handles are preserved (from Mgr/LevelSwapOrder.v);
    - the empty table is well-formed ([empty_wf_gen], any kind);
    - runs of any state machine whose accepted steps keep an invariant
      ([run_ok], [reach_inv], [reach_step], [pres_b_sound]): the run-level
      theorems of all kinds are instances. *)

From Coq Require Import List NArith PArith Bool Arith Lia FMapPositive.
From OxiVerif Require Import Base.ListFacts DD.Table DD.TableProofs DD.Canon DD.Sem DD.Build DD.BuildProofs
  DD.Apply DD.ApplyProofs DD.ApplyEvalProofs DD.ConfigApply DD.ConfigRun DD.Quant DD.QuantSpecProofs DD.QuantLemmas DD.QuantTopProofs
  Mgr.History.
Import ListNotations.

(** ** Appending levels / replacing the handle list *)

Definition widen (s : snap) (k : nat) (hs : list (N * edge)) : snap :=
  mkSnap (s_kind s) (s_nodes s) (s_terms s)
         (s_v2l s ++ seq (nlevels s) k) (s_l2v s ++ seq (nlevels s) k) hs.

Lemma widen_add_vars : forall s k, add_vars_model s k = widen s k (s_handles s).
Proof. reflexivity. Qed.

Lemma widen_set_handles : forall s hs, set_handles s hs = widen s 0 hs.
Proof. intros s hs. unfold set_handles, widen. simpl. rewrite !app_nil_r. reflexivity. Qed.

Lemma widen_nlevels : forall s k hs, nlevels (widen s k hs) = nlevels s + k.
Proof. intros. unfold nlevels. simpl. rewrite app_length, seq_length. reflexivity. Qed.

Lemma semk_widen : forall s k hs f r c, semk (widen s k hs) f r c = semk s f r c.
Proof.
  intros s k hs. induction f as [|f IH]; intros r c; destruct r as [t|id]; try reflexivity.
  rewrite !semk_S. change (find_node (widen s k hs) id) with (find_node s id).
  destruct (find_node s id) as [nd|]; [|reflexivity].
  destruct (nth_error (nchildren nd) (c (nlevel nd))); [apply IH | reflexivity].
Qed.

Lemma ref_ok_widen : forall s k hs r, ref_ok (widen s k hs) r <-> ref_ok s r.
Proof. intros s k hs [t|id]; reflexivity. Qed.

Lemma rlevel_widen : forall s k hs r, rlevel s r <= rlevel (widen s k hs) r.
Proof.
  intros s k hs [t|id]; simpl.
  - rewrite widen_nlevels. lia.
  - change (find_node (widen s k hs) id) with (find_node s id).
    destruct (find_node s id); [lia | rewrite widen_nlevels; lia].
Qed.

Lemma rlevel_widen_node : forall s k hs id nd, find_node s id = Some nd ->
  rlevel (widen s k hs) (RN id) = rlevel s (RN id).
Proof.
  intros s k hs id nd E. simpl. change (find_node (widen s k hs) id) with (find_node s id).
  rewrite E. reflexivity.
Qed.

Lemma nth_error_app_seq : forall (l : list nat) n k i,
  length l = n ->
  nth_error (l ++ seq n k) i =
  if Nat.ltb i n then nth_error l i else if Nat.ltb i (n + k) then Some i else None.
Proof.
  intros l n k i Hl. destruct (Nat.ltb_spec i n) as [A|A].
  - apply nth_error_app1. lia.
  - rewrite nth_error_app2 by lia. rewrite Hl.
    destruct (Nat.ltb_spec i (n + k)) as [B|B].
    + rewrite (nth_error_nth' _ 0) by (rewrite seq_length; lia). rewrite seq_nth by lia. f_equal. lia.
    + apply nth_error_None. rewrite seq_length. lia.
Qed.

Lemma inv_on_widen : forall (a b : list nat) n k, length a = n -> length b = n ->
  inv_on a b -> inv_on (a ++ seq n k) (b ++ seq n k).
Proof.
  intros a b n k La Lb Hab i Hi. rewrite app_length, seq_length in Hi.
  rewrite (nth_error_app_seq a n k i La).
  destruct (Nat.ltb_spec i n) as [A|A].
  - destruct (Hab i ltac:(lia)) as [j [E1 E2]]. exists j. split; [exact E1|].
    rewrite (nth_error_app_seq b n k j Lb).
    assert (j < n) by (rewrite <- Lb; apply nth_error_Some; congruence).
    destruct (Nat.ltb_spec j n); [exact E2 | lia].
  - destruct (Nat.ltb_spec i (n + k)) as [B|B]; [|lia].
    exists i. split; [reflexivity|]. rewrite (nth_error_app_seq b n k i Lb).
    destruct (Nat.ltb_spec i n); [lia|]. destruct (Nat.ltb_spec i (n + k)); [reflexivity | lia].
Qed.

Lemma wf_widen : forall s k hs, WF s ->
  (forall h, In h hs -> ref_ok s (eref (snd h)) /\ (s_kind s <> KBcdd -> etag (snd h) = false)) ->
  WF (widen s k hs).
Proof.
  intros s k hs H Hh.
  assert (Lv : length (s_v2l s) = nlevels s) by (apply (wf_perm_len s H)).
  constructor.
  - simpl. rewrite !app_length. f_equal. apply (wf_perm_len s H).
  - simpl. apply inv_on_widen; [exact Lv | reflexivity | apply (wf_perm_v2l s H)].
  - simpl. apply inv_on_widen; [reflexivity | exact Lv | apply (wf_perm_l2v s H)].
  - exact (wf_arity s H).
  - exact (wf_stored s H).
  - intros id nd E. rewrite widen_nlevels. pose proof (wf_level s H id nd E). lia.
  - intros id nd e E He. destruct (wf_child s H id nd e E He) as [A B].
    split; [apply ref_ok_widen; exact A|]. pose proof (rlevel_widen s k hs (eref e)). lia.
  - exact (wf_reduced s H).
  - exact (wf_tags s H).
  - exact (wf_unique s H).
  - exact (wf_term_ids s H).
  - exact (wf_term_vals s H).
  - intros h Hin. destruct (Hh h Hin) as [A B]. split; [apply ref_ok_widen; exact A | exact B].
Qed.

Lemma bddok_widen : forall s k hs, BddOK s ->
  (forall h, In h hs -> ref_ok s (eref (snd h)) /\ etag (snd h) = false) ->
  BddOK (widen s k hs).
Proof.
  intros s k hs B Hh. constructor.
  - apply wf_widen; [apply (bo_wf s B)|]. intros h Hin. destruct (Hh h Hin). split; auto.
  - exact (bo_kind s B).
  - exact (bo_codes s B).
  - exact (bo_false s B).
  - exact (bo_true s B).
Qed.

Lemma semk_widen_fuel : forall s k hs r c, WF s -> ref_ok s r ->
  semk (widen s k hs) (S (nlevels (widen s k hs))) r c = semk s (S (nlevels s)) r c.
Proof.
  intros s k hs r c H A. rewrite semk_widen, widen_nlevels.
  pose proof (rlevel_le s H r). apply (semk_fuel s H); [exact A | lia | lia].
Qed.

(** the same function of the level-indexed choice *)
Lemma den_widen : forall s k hs r phi, WF s -> Den s r phi -> Den (widen s k hs) r phi.
Proof.
  intros s k hs r phi H [A D]. split; [apply ref_ok_widen; exact A|].
  intros c Hc. rewrite (semk_widen_fuel s k hs r c H A). apply (D c Hc).
Qed.

Lemma den_widen_inv : forall s k hs r phi, WF s -> Den (widen s k hs) r phi -> Den s r phi.
Proof.
  intros s k hs r phi H [A D]. apply ref_ok_widen in A. split; [exact A|].
  intros c Hc. rewrite <- (semk_widen_fuel s k hs r c H A). apply (D c Hc).
Qed.

Lemma dfun_widen : forall s k hs r c, WF s -> ref_ok s r -> dfun (widen s k hs) r c = dfun s r c.
Proof. intros s k hs r c H A. unfold dfun. rewrite (semk_widen_fuel s k hs r c H A). reflexivity. Qed.

Lemma choice_of_widen : forall s k hs a l, l < nlevels s ->
  choice_of (widen s k hs) a l = choice_of s a l.
Proof.
  intros s k hs a l Hl. unfold choice_of. simpl.
  rewrite nth_error_app1 by exact Hl. reflexivity.
Qed.

(** the function over the VARIABLES: unchanged; in particular it does not
    read the new variables *)
Lemma bfun_of_widen : forall s k hs r a, WF s -> ref_ok s r ->
  bfun_of (widen s k hs) r a = bfun_of s r a.
Proof.
  intros s k hs r a H A. unfold bfun_of, FUEL. rewrite (semk_widen_fuel s k hs r _ H A).
  rewrite (semk_ext_lt s H (S (nlevels s)) r _ (choice_of s a)); [reflexivity|].
  intros l Hl. apply choice_of_widen. exact Hl.
Qed.

(** ** The cache invariants under [widen] *)

Lemma entry_ok_widen : forall s k hs code args r, WF s ->
  entry_ok s code args r -> entry_ok (widen s k hs) code args r.
Proof.
  intros s k hs code args r H. unfold entry_ok.
  destruct args as [|f [|g [|h [|x rest]]]]; auto.
  - intros Hx Hc. destruct (Hx Hc) as [phi [A D]]. exists phi. split; apply den_widen; assumption.
  - intros Hx o Hc. destruct (Hx o Hc) as [phi [psi [A [A' D]]]]. exists phi, psi.
    split; [|split]; apply den_widen; assumption.
  - intros Hx Hc. destruct (Hx Hc) as [phi [psi [theta [A [A' [A'' D]]]]]]. exists phi, psi, theta.
    split; [|split; [|split]]; apply den_widen; assumption.
Qed.

Lemma cacheok_widen : forall C (cget : C -> N -> list ref -> option ref) s k hs c, WF s ->
  CacheOK cget s c -> CacheOK cget (widen s k hs) c.
Proof. intros C cget s k hs c H O code args r E. apply entry_ok_widen; [exact H | apply (O _ _ _ E)]. Qed.

Lemma vchain_widen : forall s k hs r L, VChain s r L -> VChain (widen s k hs) r L.
Proof.
  intros s k hs r L V. induction V as [t|id nd t e L En Ech V IH]; [constructor|].
  econstructor; eauto.
Qed.

Lemma lchain_widen : forall s k hs r M, LChain s r M -> LChain (widen s k hs) r M.
Proof.
  intros s k hs r M V.
  induction V as [t|id nd t e M En Ech Hv V IH|id nd t e M En Ech Hv V IH]; [constructor| |].
  - eapply LC_pos; eauto.
  - eapply LC_neg; eauto.
Qed.

(** the pairs of a substitution object name existing variables *)
Definition pairs_in_range (s : snap) (pairs : list (nat * ref)) : Prop :=
  forall v r, In (v, r) pairs -> v < nlevels s.

Lemma psch_widen : forall s k hs pairs c, WF s -> pairs_ok s pairs -> pairs_in_range s pairs ->
  ceq (psch (widen s k hs) pairs c) (psch s pairs c).
Proof.
  intros s k hs pairs c H F R l. unfold psch. simpl s_l2v.
  rewrite (nth_error_app_seq (s_l2v s) (nlevels s) k l eq_refl).
  destruct (Nat.ltb_spec l (nlevels s)) as [A|A].
  - destruct (nth_error (s_l2v s) l) as [v|]; [|reflexivity].
    destruct (assoc_nat pairs v) as [r|] eqn:E; [|reflexivity].
    rewrite (dfun_widen s k hs r c H); [reflexivity|]. apply (F v r). apply assoc_nat_In. exact E.
  - assert (En : nth_error (s_l2v s) l = None) by (apply nth_error_None; exact A). rewrite En.
    destruct (Nat.ltb_spec l (nlevels s + k)) as [B|B]; [|reflexivity].
    destruct (assoc_nat pairs l) as [r|] eqn:E; [|reflexivity].
    apply assoc_nat_In in E. specialize (R l r E). lia.
Qed.

Lemma pairs_ok_widen : forall s k hs pairs, pairs_ok s pairs -> pairs_ok (widen s k hs) pairs.
Proof. intros s k hs pairs F v r Hin. apply ref_ok_widen. apply (F v r Hin). Qed.

Lemma qentry_ok_widen : forall (Sg : N -> option (list (nat * ref))) s k hs code args r, WF s ->
  (forall id pairs, Sg id = Some pairs -> pairs_in_range s pairs) ->
  qentry_ok Sg s code args r -> qentry_ok Sg (widen s k hs) code args r.
Proof.
  intros Sg s k hs code args r H HR [Q1 [Q2 [Q3 Q4]]]. split; [|split; [|split]].
  - intros q f vars Hc Ha. destruct (Q1 q f vars Hc Ha) as [phi [L [D [V Dr]]]].
    exists phi, L. split; [apply den_widen; assumption|]. split; [apply vchain_widen; exact V|].
    apply den_widen; assumption.
  - intros f vars Hc Ha. destruct (Q2 f vars Hc Ha) as [phi [M [D [V Dr]]]].
    exists phi, M. split; [apply den_widen; assumption|]. split; [apply lchain_widen; exact V|].
    apply den_widen; assumption.
  - intros q o f g vars Hc Ha. destruct (Q3 q o f g vars Hc Ha) as [phi [psi [L [D [D' [V Dr]]]]]].
    exists phi, psi, L. split; [apply den_widen; assumption|]. split; [apply den_widen; assumption|].
    split; [apply vchain_widen; exact V|]. apply den_widen; assumption.
  - intros id f Hc Ha. destruct (Q4 id f Hc Ha) as [pairs [phi [Es [F [D Dr]]]]].
    exists pairs, phi. split; [exact Es|]. split; [apply pairs_ok_widen; exact F|].
    split; [apply den_widen; assumption|].
    apply (den_ext (widen s k hs) r (psubst s pairs phi)); [apply den_widen; assumption|].
    intros c0 Hc0. unfold psubst. symmetry.
    apply (den_cext s f phi H D); [apply psch_bchoice; exact Hc0 | apply psch_bchoice; exact Hc0|].
    apply psch_widen; [exact H | exact F | apply (HR id pairs Es)].
Qed.

Lemma qcacheok_widen : forall C (cget : C -> N -> list ref -> option ref)
  (Sg : N -> option (list (nat * ref))) s k hs c, WF s ->
  (forall id pairs, Sg id = Some pairs -> pairs_in_range s pairs) ->
  QCacheOK cget Sg s c -> QCacheOK cget Sg (widen s k hs) c.
Proof.
  intros C cget Sg s k hs c H HR [O Q]. split; [apply cacheok_widen; assumption|].
  intros code args r E. apply qentry_ok_widen; [exact H | exact HR | apply (Q _ _ _ E)].
Qed.

(** ** Functions over variables under [set_handles] / [extends] *)

Lemma bfun_of_set_handles : forall s hs r a, bfun_of (set_handles s hs) r a = bfun_of s r a.
Proof.
  intros s hs r a. unfold bfun_of.
  change (FUEL (set_handles s hs)) with (FUEL s).
  change (choice_of (set_handles s hs) a) with (choice_of s a).
  rewrite ConfigRun.semk_set_handles. reflexivity.
Qed.

Lemma bfun_of_extends : forall s s' r a, WF s -> extends s s' -> ref_ok s r ->
  bfun_of s' r a = bfun_of s r a.
Proof.
  intros s s' r a H X A. unfold bfun_of, FUEL, choice_of.
  rewrite (ext_nlevels _ _ X), (ext_l2v _ _ X), (semk_extends s s' H X _ r _ A). reflexivity.
Qed.

(** ** Slots *)

Lemma hget_hdel_same : forall hs k, hget (hdel hs k) k = None.
Proof.
  induction hs as [|[a e] r IH]; intros k; simpl; [reflexivity|].
  destruct (N.eqb_spec a k) as [->|Hn]; simpl; [apply IH|].
  destruct (N.eqb_spec a k); [contradiction | apply IH].
Qed.

Lemma hget_hdel_other : forall hs k x, x <> k -> hget (hdel hs k) x = hget hs x.
Proof.
  induction hs as [|[a e] r IH]; intros k x Hx; simpl; [reflexivity|].
  destruct (N.eqb_spec a k) as [->|Hn]; simpl.
  - destruct (N.eqb_spec k x); [congruence | apply IH; exact Hx].
  - destruct (N.eqb_spec a x); [reflexivity | apply IH; exact Hx].
Qed.

Lemma hget_hset_same : forall hs k e, hget (hset hs k e) k = Some e.
Proof. intros. unfold hset. simpl. rewrite N.eqb_refl. reflexivity. Qed.

Lemma hget_hset_other : forall hs k e x, x <> k -> hget (hset hs k e) x = hget hs x.
Proof.
  intros hs k e x Hx. unfold hset. simpl.
  destruct (N.eqb_spec k x); [congruence | apply hget_hdel_other; exact Hx].
Qed.

(** ** The empty manager *)

Lemma empty_wf_gen : forall k ts n, NoDup (map fst ts) -> NoDup (map snd ts) ->
  WF (mkSnap k (PositiveMap.empty node) ts (seq 0 n) (seq 0 n) []).
Proof.
  intros k ts n Hi Hv.
  assert (Hinv : inv_on (seq 0 n) (seq 0 n)).
  { intros i Hi'. rewrite seq_length in Hi'. exists i. split; apply nth_error_seq0; exact Hi'. }
  assert (Hf : forall id nd, find_node (mkSnap k (PositiveMap.empty node) ts (seq 0 n) (seq 0 n) []) id <> Some nd).
  { intros id nd. unfold find_node. simpl. rewrite PositiveMap.gempty. discriminate. }
  constructor; simpl; try assumption; try (intros; exfalso; eapply Hf; eassumption).
  - reflexivity.
  - intros h [].
Qed.

Lemma andb_iff : forall a b (A B : Prop), (a = true <-> A) -> (b = true <-> B) -> (a && b = true <-> A /\ B).
Proof. intros a b A B Ha Hb. rewrite andb_true_iff, Ha, Hb. reflexivity. Qed.

Lemma andb3_iff : forall a b c (A B D : Prop), (a = true <-> A) -> (b = true <-> B) -> (c = true <-> D) ->
  (a && b && c = true <-> A /\ B /\ D).
Proof. intros a b c A B D Ha Hb Hc. rewrite !andb_true_iff, Ha, Hb, Hc. tauto. Qed.

(** ** Runs of a state machine

    What the histories of all kinds (Mgr/History.v, HistoryC.v, HistoryZ.v, HistoryM.v,
    TddHist.v) have in common: a step function that may refuse, an invariant that every
    accepted step of a well-formed request re-establishes.  [run], [pres], [pres_b] are the
    run functions and the "every request is well-formed when it is its turn" predicates of
    the kinds, which are defined there by the same recursion. *)

Section Runs.
Variables (St Op : Type).
Variable step : St -> Op -> option St.
Variable Inv : St -> Prop.
Variable pre : St -> Op -> Prop.
Hypothesis step_inv : forall st o, Inv st -> pre st o -> exists st', step st o = Some st' /\ Inv st'.

Fixpoint run (st : St) (ops : list Op) : option St :=
  match ops with
  | [] => Some st
  | o :: rest => match step st o with Some st1 => run st1 rest | None => None end
  end.

Fixpoint pres (st : St) (ops : list Op) : Prop :=
  match ops with
  | [] => True
  | o :: rest => pre st o /\ forall st1, step st o = Some st1 -> pres st1 rest
  end.

Lemma run_ok : forall ops st, Inv st -> pres st ops -> exists st', run st ops = Some st' /\ Inv st'.
Proof.
  induction ops as [|o rest IH]; intros st I Pre.
  - exists st. split; [reflexivity | exact I].
  - destruct Pre as [P0 Prest]. destruct (step_inv st o I P0) as [st1 [E I1]].
    simpl. rewrite E. apply (IH st1 I1 (Prest st1 E)).
Qed.

Lemma run_app : forall ops1 ops2 st, run st (ops1 ++ ops2) =
  match run st ops1 with Some st1 => run st1 ops2 | None => None end.
Proof.
  induction ops1 as [|o r IH]; intros ops2 st; simpl; [reflexivity|].
  destruct (step st o); [apply IH | reflexivity].
Qed.

Lemma pres_app : forall ops1 ops2 st, pres st ops1 ->
  (forall st1, run st ops1 = Some st1 -> pres st1 ops2) -> pres st (ops1 ++ ops2).
Proof.
  induction ops1 as [|o r IH]; intros ops2 st P1 P2; simpl.
  - apply P2. reflexivity.
  - destruct P1 as [P0 Pr]. split; [exact P0|]. intros st1 E. apply IH; [apply Pr; exact E|].
    intros st2 E2. apply P2. simpl. rewrite E. exact E2.
Qed.

Definition reach (init st : St) : Prop := exists ops, pres init ops /\ run init ops = Some st.

Lemma reach_inv : forall init st, Inv init -> reach init st -> Inv st.
Proof.
  intros init st I0 [ops [P E]]. destruct (run_ok ops init I0 P) as [st' [E' I']].
  rewrite E in E'. inversion E'; subst. exact I'.
Qed.

Lemma reach_step : forall init st o st', reach init st -> pre st o -> step st o = Some st' -> reach init st'.
Proof.
  intros init st o st' [ops [P E]] Pre Es. exists (ops ++ [o]). split.
  - apply pres_app; [exact P|]. intros st1 E1. rewrite E in E1. inversion E1; subst st1.
    simpl. split; [exact Pre | intros; exact I].
  - rewrite run_app, E. simpl. rewrite Es. reflexivity.
Qed.

Lemma run_reach : forall init ops, Inv init -> pres init ops -> exists st, run init ops = Some st /\ reach init st.
Proof.
  intros init ops I0 P. destruct (run_ok ops init I0 P) as [st [E _]]. exists st. split; [exact E|]. exists ops. auto.
Qed.

End Runs.

(** the executable check of a whole request list; for its soundness it is enough that accepted
    steps keep the invariant under which the check of one request is sound *)
Section RunsChecked.
Variables (St Op : Type).
Variable step : St -> Op -> option St.
Variable Inv : St -> Prop.
Variable pre : St -> Op -> Prop.
Variable pre_b : St -> Op -> bool.
Hypothesis step_keeps : forall st o st', Inv st -> pre st o -> step st o = Some st' -> Inv st'.
Hypothesis pre_b_sound : forall st o, Inv st -> pre_b st o = true -> pre st o.

Fixpoint pres_b (st : St) (ops : list Op) : bool :=
  match ops with
  | [] => true
  | o :: rest => pre_b st o && match step st o with Some st1 => pres_b st1 rest | None => false end
  end.

Lemma pres_b_sound : forall ops st, Inv st -> pres_b st ops = true -> pres St Op step pre st ops.
Proof.
  induction ops as [|o rest IH]; intros st I0 Hb; simpl in *; [exact I|].
  apply andb_true_iff in Hb. destruct Hb as [A B0].
  pose proof (pre_b_sound st o I0 A) as P0. split; [exact P0|].
  intros st1 E. rewrite E in B0. apply (IH st1 (step_keeps st o st1 I0 P0 E) B0).
Qed.

End RunsChecked.

Lemma step_inv_keeps : forall (St Op : Type) (step : St -> Op -> option St) (Inv : St -> Prop) (pre : St -> Op -> Prop),
  (forall st o, Inv st -> pre st o -> exists st', step st o = Some st' /\ Inv st') ->
  forall st o st', Inv st -> pre st o -> step st o = Some st' -> Inv st'.
Proof.
  intros St Op step Inv pre Hs st o st' I0 P E. destruct (Hs st o I0 P) as [st1 [E1 I1]].
  rewrite E in E1. inversion E1; subst. exact I1.
Qed.
