(** * Transport lemmas for the BCDD manager state machine (Mgr/HistoryC.v)

    The complement-edge counterparts of Mgr/HistoryBase.v / HistoryReorder.v:

    - [widen s k hs] (append [k] levels, replace the handle list): [BcOK],
      [DenC], [cbfun_of], [CacheOKC], [QCacheOKC] are preserved;
    - [collected] (what [gc_model] computes, Mgr/HistoryGc.v): [BcOK] again, a
      sub-table, every surviving edge means what it meant;
    - [set_var_order_model_c]: [BcOK] and the functions over VARIABLES of all
      handles are preserved (from Mgr/LevelSwapCOrder.v);
    - [qc_apply_op]: the eight public binary operators at the level of the
      full cache invariant [QCacheOKC];
    - [cbfun_of_local], [cbfun_eq_denc]: a function reads only the table's
      variables; equal functions of the variables = equal denotations. *)

From Coq Require Import List NArith PArith Bool Arith Lia FMapPositive.
From OxiVerif Require Import DD.Table DD.TableProofs DD.Canon DD.CanonBcdd DD.Sem DD.Build DD.BuildProofs
  DD.PickInsert DD.Apply DD.ApplyProofs DD.ApplyEvalProofs DD.ConfigApply DD.ConfigRun
  DD.ApplyBcdd DD.ApplyBcddProofs DD.ApplyBcddIte DD.ApplyBcddEval DD.BuildCanonBcdd
  DD.Quant DD.QuantLemmas DD.QuantTopProofs DD.QuantBcdd DD.QuantBcddLemmas DD.QuantBcddTop
  Mgr.SortOrder Mgr.SortOrderProofs Mgr.LevelSwap Mgr.LevelSwapBase Mgr.LevelSwapProofs Mgr.LevelSwapOrder
  Mgr.LevelSwapC Mgr.LevelSwapCProofs Mgr.LevelSwapCOrder Mgr.OomGc Mgr.HistoryGc
  Mgr.History Mgr.HistoryBase Mgr.HistoryC.
Import ListNotations.

(** ** Appending levels / replacing the handle list *)

Lemma semc_widen : forall s k hs f e c, semc (widen s k hs) f e c = semc s f e c.
Proof.
  intros s k hs. induction f as [|f IH]; intros e c.
  - destruct (eref e) as [t|id] eqn:Er;
      [rewrite !(semc_T _ _ _ _ t Er) | rewrite !(semc_O _ _ _ id Er)]; reflexivity.
  - destruct (eref e) as [t|id] eqn:Er; [rewrite !(semc_T _ _ _ _ t Er); reflexivity|].
    rewrite !(semc_S _ _ _ _ id Er). change (find_node (widen s k hs) id) with (find_node s id).
    destruct (find_node s id) as [nd|]; [|reflexivity].
    destruct (nth_error (nchildren nd) (c (nlevel nd))) as [e'|]; [|reflexivity].
    rewrite IH. reflexivity.
Qed.

Lemma bcok_widen : forall s k hs, BcOK s ->
  (forall h, In h hs -> ref_ok s (eref (snd h))) -> BcOK (widen s k hs).
Proof.
  intros s k hs B Hh. constructor.
  - apply wf_widen; [apply (bc_wf s B)|]. intros h Hin. split; [apply (Hh h Hin)|].
    intros Hk. exfalso. apply Hk. apply (bc_kind s B).
  - exact (bc_kind s B).
  - exact (bc_term s B).
Qed.

Lemma bcok_set_handles : forall s hs, BcOK s ->
  (forall h, In h hs -> ref_ok s (eref (snd h))) -> BcOK (set_handles s hs).
Proof. intros s hs B Hh. rewrite widen_set_handles. apply bcok_widen; assumption. Qed.

Lemma bc_handle_ok : forall s h, BcOK s -> In h (s_handles s) -> ref_ok s (eref (snd h)).
Proof. intros s h B Hin. apply (wf_handles s (bc_wf s B) h Hin). Qed.

Lemma in_hdel : forall hs k h, In h (hdel hs k) -> In h hs.
Proof. intros hs k h Hin. unfold hdel in Hin. apply filter_In in Hin. apply Hin. Qed.

Lemma bcok_cput : forall s d e, BcOK s -> ref_ok s (eref e) -> BcOK (cput s d e).
Proof.
  intros s d e B Oe. apply bcok_set_handles; [exact B|].
  intros h [<-|Hin]; [exact Oe|]. apply (bc_handle_ok s h B). apply (in_hdel _ _ _ Hin).
Qed.

Lemma bcok_drop : forall s d, BcOK s -> BcOK (set_handles s (hdel (s_handles s) d)).
Proof.
  intros s d B. apply bcok_set_handles; [exact B|].
  intros h Hin. apply (bc_handle_ok s h B). apply (in_hdel _ _ _ Hin).
Qed.

Lemma semc_widen_fuel : forall s k hs e c, WF s -> ref_ok s (eref e) ->
  semc (widen s k hs) (S (nlevels (widen s k hs))) e c = semc s (S (nlevels s)) e c.
Proof.
  intros s k hs e c H A. rewrite semc_widen, widen_nlevels.
  pose proof (rlevel_le s H (eref e)). apply (semc_fuel s H); [exact A | lia | lia].
Qed.

(** the same function of the level-indexed choice *)
Lemma denc_widen : forall s k hs e phi, WF s -> DenC s e phi -> DenC (widen s k hs) e phi.
Proof.
  intros s k hs e phi H [A D]. split; [apply ref_ok_widen; exact A|].
  intros c Hc. rewrite (semc_widen_fuel s k hs e c H A). apply (D c Hc).
Qed.

Lemma dfunC_widen : forall s k hs e c, WF s -> ref_ok s (eref e) -> dfunC (widen s k hs) e c = dfunC s e c.
Proof. intros s k hs e c H A. unfold dfunC. rewrite (semc_widen_fuel s k hs e c H A). reflexivity. Qed.

(** the function over the VARIABLES: unchanged; in particular it does not
    read the new variables *)
Lemma cbfun_of_widen : forall s k hs e a, WF s -> ref_ok s (eref e) ->
  cbfun_of (widen s k hs) e a = cbfun_of s e a.
Proof.
  intros s k hs e a H A. unfold cbfun_of, CFUEL. rewrite (semc_widen_fuel s k hs e _ H A).
  rewrite (BuildCanonBcdd.semc_ext_lt s H (S (nlevels s)) e _ (choice_of s a)); [reflexivity|].
  intros l Hl. apply choice_of_widen. exact Hl.
Qed.

(** ** The cache invariants under [widen] *)

Lemma centry_ok_widen : forall s k hs code args r, WF s ->
  centry_ok s code args r -> centry_ok (widen s k hs) code args r.
Proof.
  intros s k hs code args r H. unfold centry_ok.
  destruct args as [|f [|g [|h [|x rest]]]]; auto.
  - intros Hx o Hc. destruct (Hx o Hc) as [phi [psi [A [A' D]]]]. exists phi, psi.
    split; [|split]; apply denc_widen; assumption.
  - intros Hx Hc. destruct (Hx Hc) as [phi [psi [theta [A [A' [A'' D]]]]]]. exists phi, psi, theta.
    split; [|split; [|split]]; apply denc_widen; assumption.
Qed.

Lemma ccacheok_widen : forall C (cget : C -> N -> list edge -> option edge) s k hs c, WF s ->
  CacheOKC cget s c -> CacheOKC cget (widen s k hs) c.
Proof. intros C cget s k hs c H O code args r E. apply centry_ok_widen; [exact H | apply (O _ _ _ E)]. Qed.

Lemma vchainc_widen : forall s k hs e L, VChainC s e L -> VChainC (widen s k hs) e L.
Proof.
  intros s k hs e L V. induction V as [e t Er|e id nd t x L Er En Ech V IH]; [eapply VCC_T; eauto|].
  eapply VCC_N; eauto.
Qed.

Lemma lchainc_widen : forall s k hs r neg M, LChainC s r neg M -> LChainC (widen s k hs) r neg M.
Proof.
  intros s k hs r neg M V.
  induction V as [t neg|id neg nd t x tid M En Ech Et V IH|id nd t x tt En Ech Et
                  |id nd t x tt M En Ech Et V IH]; [constructor| | |].
  - eapply LCC_pos; eauto.
  - eapply LCC_pos_last; eauto.
  - eapply LCC_neg; eauto.
Qed.

(** the pairs of a substitution object name existing variables *)
Definition cpairs_in_range (s : snap) (pairs : list (nat * edge)) : Prop :=
  forall v r, In (v, r) pairs -> v < nlevels s.

Lemma pschC_widen : forall s k hs pairs c, WF s -> pairs_okC s pairs -> cpairs_in_range s pairs ->
  ceq (pschC (widen s k hs) pairs c) (pschC s pairs c).
Proof.
  intros s k hs pairs c H F R l. unfold pschC. simpl s_l2v.
  rewrite (nth_error_app_seq (s_l2v s) (nlevels s) k l eq_refl).
  destruct (Nat.ltb_spec l (nlevels s)) as [A|A].
  - destruct (nth_error (s_l2v s) l) as [v|]; [|reflexivity].
    destruct (assoc_nat pairs v) as [r|] eqn:E; [|reflexivity].
    rewrite (dfunC_widen s k hs r c H); [reflexivity|]. apply (F v r). apply assoc_nat_In. exact E.
  - assert (En : nth_error (s_l2v s) l = None) by (apply nth_error_None; exact A). rewrite En.
    destruct (Nat.ltb_spec l (nlevels s + k)) as [B|B]; [|reflexivity].
    destruct (assoc_nat pairs l) as [r|] eqn:E; [|reflexivity].
    apply assoc_nat_In in E. specialize (R l r E). lia.
Qed.

Lemma pairs_okC_widen : forall s k hs pairs, pairs_okC s pairs -> pairs_okC (widen s k hs) pairs.
Proof. intros s k hs pairs F v r Hin. apply ref_ok_widen. apply (F v r Hin). Qed.

Lemma cqentry_ok_widen : forall (Sg : N -> option (list (nat * edge))) s k hs code args r, WF s ->
  (forall id pairs, Sg id = Some pairs -> cpairs_in_range s pairs) ->
  cqentry_ok Sg s code args r -> cqentry_ok Sg (widen s k hs) code args r.
Proof.
  intros Sg s k hs code args r H HR [Q1 [Q2 [Q3 Q4]]]. split; [|split; [|split]].
  - intros q f vars Hc Ha. destruct (Q1 q f vars Hc Ha) as [phi [L [D [V Dr]]]].
    exists phi, L. split; [apply denc_widen; assumption|]. split; [apply vchainc_widen; exact V|].
    apply denc_widen; assumption.
  - intros f vars Hc Ha. destruct (Q2 f vars Hc Ha) as [phi [M [D [V Dr]]]].
    exists phi, M. split; [apply denc_widen; assumption|]. split; [apply lchainc_widen; exact V|].
    apply denc_widen; assumption.
  - intros q o f g vars Hc Ha. destruct (Q3 q o f g vars Hc Ha) as [phi [psi [L [D [D' [V Dr]]]]]].
    exists phi, psi, L. split; [apply denc_widen; assumption|]. split; [apply denc_widen; assumption|].
    split; [apply vchainc_widen; exact V|]. apply denc_widen; assumption.
  - intros id f Hc Ha. destruct (Q4 id f Hc Ha) as [pairs [phi [Es [F [D Dr]]]]].
    exists pairs, phi. split; [exact Es|]. split; [apply pairs_okC_widen; exact F|].
    split; [apply denc_widen; assumption|].
    apply (denc_ext (widen s k hs) r (psubstC s pairs phi)); [apply denc_widen; assumption|].
    intros c0 Hc0. unfold psubstC. symmetry.
    apply (denc_cext s f phi H D); [apply pschC_bchoice; exact Hc0 | apply pschC_bchoice; exact Hc0|].
    apply pschC_widen; [exact H | exact F | apply (HR id pairs Es)].
Qed.

Lemma qcacheokc_widen : forall C (cget : C -> N -> list edge -> option edge)
  (Sg : N -> option (list (nat * edge))) s k hs c, WF s ->
  (forall id pairs, Sg id = Some pairs -> cpairs_in_range s pairs) ->
  QCacheOKC cget Sg s c -> QCacheOKC cget Sg (widen s k hs) c.
Proof.
  intros C cget Sg s k hs c H HR [O Q]. split; [apply ccacheok_widen; assumption|].
  intros code args r E. apply cqentry_ok_widen; [exact H | exact HR | apply (Q _ _ _ E)].
Qed.

(** ** Functions over variables under [set_handles] / [extends] *)

Lemma semc_set_handles : forall s hs f e c, semc (set_handles s hs) f e c = semc s f e c.
Proof. intros s hs f e c. rewrite widen_set_handles. apply semc_widen. Qed.

Lemma cbfun_of_set_handles : forall s hs e a, cbfun_of (set_handles s hs) e a = cbfun_of s e a.
Proof.
  intros s hs e a. unfold cbfun_of.
  change (CFUEL (set_handles s hs)) with (CFUEL s).
  change (choice_of (set_handles s hs) a) with (choice_of s a).
  rewrite semc_set_handles. reflexivity.
Qed.

Lemma cbfun_of_extends : forall s s' e a, WF s -> extends s s' -> ref_ok s (eref e) ->
  cbfun_of s' e a = cbfun_of s e a.
Proof.
  intros s s' e a H X A. unfold cbfun_of, CFUEL, choice_of.
  rewrite (ext_nlevels _ _ X), (ext_l2v _ _ X), (semc_extends s s' H X _ e _ A). reflexivity.
Qed.

(** a function of a table reads only the table's variables *)
Lemma cbfun_of_local : forall s e a a', WF s -> (forall v, v < nlevels s -> a v = a' v) ->
  cbfun_of s e a = cbfun_of s e a'.
Proof.
  intros s e a a' H Hag. unfold cbfun_of.
  rewrite (BuildCanonBcdd.semc_ext_lt s H _ e (choice_of s a) (choice_of s a')); [reflexivity|].
  intros l Hl. unfold choice_of. destruct (vl_spec s H l Hl) as [E [_ Hv]]. rewrite E, (Hag _ Hv). reflexivity.
Qed.

(** equal functions of the variables = the same denotation *)
Lemma cbfun_eq_denc : forall s e1 e2 phi, BcOK s -> DenC s e1 phi -> ref_ok s (eref e2) ->
  (forall a, cbfun_of s e1 a = cbfun_of s e2 a) -> DenC s e2 phi.
Proof.
  intros s e1 e2 phi B D1 O2 Heq.
  destruct (denc_exists s e2 B O2) as [psi D2].
  apply (denc_ext s e2 psi phi D2). intros c Hc.
  rewrite (denc_bfun s B e2 psi c D2 Hc), (denc_bfun s B e1 phi c D1 Hc). symmetry. apply Heq.
Qed.

(** the BCDD form of [collected_ok] (Mgr/OomGc.v) *)
Theorem collected_ok_c : forall s sg, BcOK s -> collected s sg ->
  BcOK sg /\ extends sg s /\
  (forall h, In h (s_handles s) -> ref_ok sg (eref (snd h))).
Proof.
  intros s sg B Cg. pose proof (collected_wf_gen s sg (bc_wf s B) Cg) as Hg.
  split; [|split].
  - constructor; [exact Hg | rewrite (co_kind s sg Cg); apply (bc_kind s B)
                  | rewrite (co_terms s sg Cg); apply (bc_term s B)].
  - apply (collected_sub_gen s sg Cg).
  - intros h Hh. rewrite <- (co_handles s sg Cg) in Hh. apply (wf_handles sg Hg h Hh).
Qed.

(** ** [set_var_order_model_c] in the vocabulary of the state machine *)

Lemma fold_level_swap_c_terms : forall sw s, s_terms (fold_left level_swap_c sw s) = s_terms s.
Proof. induction sw as [|k sw IH]; intros s; simpl; [reflexivity | rewrite IH; reflexivity]. Qed.

Lemma reorder_c_terms : forall s order, s_terms (set_var_order_model_c s order) = s_terms s.
Proof. intros. unfold set_var_order_model_c. apply fold_level_swap_c_terms. Qed.

(** [cbfun_of] is [eval_vars] read as a Boolean *)
Lemma cbfun_eval_vars : forall s e a, WF s -> s_kind s = KBcdd ->
  cbfun_of s e a = match eval_vars s e a with Some 1%N => true | _ => false end.
Proof.
  intros s e a H Hk. unfold cbfun_of, eval_vars, sem_edge, CFUEL. rewrite Hk.
  rewrite (BuildCanonBcdd.semc_ext_lt s H _ e (choice_of s a) (asg_choice s a)).
  - destruct (semc s (S (nlevels s)) e (asg_choice s a)) as [[|]|]; reflexivity.
  - intros l Hl. unfold choice_of, asg_choice.
    destruct (nth_error (s_l2v s) l) as [v|] eqn:E.
    + rewrite (nth_error_nth _ _ 0 E). reflexivity.
    + apply nth_error_None in E. unfold nlevels in Hl. lia.
Qed.

Section ReorderC.
Variable s : snap.
Variable order : list nat.
Hypothesis B : BcOK s.
Hypothesis Hnd : NoDup order.
Hypothesis Hr : Forall (fun v => v < nlevels s) order.

Let s' := set_var_order_model_c s order.
Let H : WF s := bc_wf s B.
Let Hk : s_kind s = KBcdd := bc_kind s B.

Lemma reorder_c_facts :
  WF s' /\ s_kind s' = s_kind s /\ nlevels s' = nlevels s /\ s_handles s' = s_handles s
  /\ (forall h a, In h (s_handles s) ->
        eval_vars s' (snd h) a = eval_vars s (snd h) a /\ exists v, eval_vars s (snd h) a = Some v).
Proof.
  destruct (set_var_order_model_correct_c s order H Hk Hnd Hr) as [A [B0 [C [D [G _]]]]].
  split; [exact A|]. split; [exact B0|]. split; [exact C|]. split; [exact D | exact G].
Qed.

Lemma reorder_c_bcok : BcOK s'.
Proof.
  destruct reorder_c_facts as [A [B0 [C [D G]]]]. constructor.
  - exact A.
  - rewrite B0. exact Hk.
  - unfold s'. rewrite reorder_c_terms. apply (bc_term s B).
Qed.

Lemma reorder_c_handles : s_handles s' = s_handles s.
Proof. apply reorder_c_facts. Qed.

Lemma reorder_c_nlevels : nlevels s' = nlevels s.
Proof. apply reorder_c_facts. Qed.

Lemma reorder_c_handle_ok : forall h, In h (s_handles s) -> ref_ok s' (eref (snd h)).
Proof.
  intros h Hh. apply (wf_handles s' (bc_wf s' reorder_c_bcok)). rewrite reorder_c_handles. exact Hh.
Qed.

(** every handle denotes the same function of the variables *)
Lemma reorder_c_bfun : forall h a, In h (s_handles s) ->
  cbfun_of s' (snd h) a = cbfun_of s (snd h) a.
Proof.
  intros h a Hh. destruct reorder_c_facts as [A [B0 [C [D G]]]].
  rewrite (cbfun_eval_vars s' (snd h) a A) by (rewrite B0; exact Hk).
  rewrite (cbfun_eval_vars s (snd h) a H Hk).
  destruct (G h a Hh) as [E _]. rewrite E. reflexivity.
Qed.

(** the variables named in the request end up in the requested relative order *)
Lemma reorder_c_respects : forall a b, a < b < length order ->
  nth (nth a order 0) (s_v2l s') 0 < nth (nth b order 0) (s_v2l s') 0.
Proof. apply (set_var_order_model_respects_c s order H Hk Hnd Hr). Qed.

End ReorderC.

(** ** The public operators at the level of the full cache invariant *)

Section OpsQ.
Variable lt : edge -> edge -> bool.
Variable C : Type.
Variable cget : C -> N -> list edge -> option edge.
Variable cadd : C -> N -> list edge -> edge -> C.
Hypothesis Hlossy : lossyC cget cadd.
Variable Sg : N -> option (list (nat * edge)).

Lemma capply_op_frame : forall o fuel s c f g s' c' r,
  capply_op lt C cget cadd fuel s c o f g = Some (s', c', r) -> serves_fromC cget c c'.
Proof.
  intros o fuel s c f g s' c' r E.
  assert (Bin : forall op f0 g0 s1 c1 r1,
             capply_bin lt C cget cadd fuel s c op f0 g0 = Some (s1, c1, r1) -> serves_fromC cget c c1)
    by (intros; eapply (capply_bin_frame lt C cget cadd Hlossy); eauto).
  destruct o; unfold capply_op in E;
    first [ apply (Bin _ _ _ _ _ _ E)
          | eapply (onot_frame C cget); [|exact E]; intros s1 c1 r1 E1; apply (Bin _ _ _ _ _ _ E1) ].
Qed.

Theorem qc_apply_op : forall o s c f g phi psi, BcOK s -> QCacheOKC cget Sg s c ->
  DenC s f phi -> DenC s g psi ->
  qcresult_ok cget Sg s (capply_op lt C cget cadd (S (nlevels s)) s c o f g)
              (fun c0 => eval_bop o (phi c0) (psi c0)).
Proof.
  intros o s c f g phi psi B Q Df Dg. apply (qcresult_of_result C cget Sg s c _ _ B Q).
  - apply (capply_op_ok lt C cget cadd Hlossy o _ s c f g phi psi B (proj1 Q) Df Dg). lia.
  - intros s' c' r E. apply (capply_op_frame _ _ _ _ _ _ _ _ _ E).
Qed.

End OpsQ.

(** ** Slots *)

Lemma creg_fn_In : forall reg id pairs, creg_fn reg id = Some pairs -> In (id, pairs) reg.
Proof.
  induction reg as [|[i p] r IH]; intros id pairs E; simpl in E; [discriminate|].
  destruct (N.eqb_spec id i) as [->|Hne]; [inversion E; subst; left; reflexivity | right; auto].
Qed.

Lemma creg_roots_In : forall reg h,
  In h (creg_roots reg) <-> exists id pairs v e, In (id, pairs) reg /\ In (v, e) pairs /\ h = (id, e).
Proof.
  intros reg h. unfold creg_roots. rewrite in_flat_map. split.
  - intros [[id pairs] [Hin Hm]]. simpl in Hm. apply in_map_iff in Hm. destruct Hm as [[v e] [<- Hp]].
    exists id, pairs, v, e. auto.
  - intros [id [pairs [v [e [Hin [Hp ->]]]]]]. exists (id, pairs). split; [exact Hin|].
    simpl. apply in_map_iff. exists (v, e). auto.
Qed.
