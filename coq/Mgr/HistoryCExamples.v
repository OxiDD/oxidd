(** * A concrete BCDD history through every kind of call, and the theorems instantiated on it

    [exc_ops]: 26 calls on a complement-edge manager with 3 variables covering
    all 15 constructors of [hop] (with a substitution object - one of whose
    replacement edges is complemented - that is used again after a collection
    and a reordering, a variable added late, and [not (equiv (xor f x3) x3)]
    coming back to the very edge of [f]), run with an unbounded cache and edge
    order "always f < g".
    [exc_fresh]: a fresh manager with 4 variables that is only brought into the
    same variable order and builds the two operands, run WITHOUT cache and
    with edge order "never f < g".
    Everything here is computed by [vm_compute] on the executable model; the
    theorems of Mgr/HistoryCThms.v / HistoryCSpec.v are then applied to the
    computed states (their hypotheses are satisfiable, their conclusions are
    about non-trivial tables with complemented edges). *)

From Coq Require Import List NArith PArith Bool Arith Lia FMapPositive.
From OxiVerif Require Import DD.Table DD.TableProofs DD.Sem DD.Build DD.Apply DD.ApplyProofs
  DD.ApplyEvalProofs DD.ConfigApply DD.Quant DD.QuantSpecProofs DD.QuantTopProofs
  DD.ApplyBcdd DD.ApplyBcddProofs DD.ApplyBcddEval DD.QuantBcdd DD.QuantBcddTop
  Mgr.History Mgr.HistoryBase Mgr.HistoryProofs Mgr.HistoryThms Mgr.HistorySpec Mgr.HistoryExamples
  Mgr.HistoryC Mgr.HistoryCBase Mgr.HistoryCProofs Mgr.HistoryCThms Mgr.HistoryCSpec.
Import ListNotations.
Local Open Scope N_scope.

(** ** Deciding equality of two diagram functions by enumeration
    ([all_asgs], [bfun_eqb] of Mgr/HistoryExamples.v) *)

Lemma cbfun_eq_enum : forall s1 s2 e1 e2 n, WF s1 -> WF s2 -> nlevels s1 = n -> nlevels s2 = n ->
  bfun_eqb n (cbfun_of s1 e1) (cbfun_of s2 e2) = true ->
  forall a, cbfun_of s1 e1 a = cbfun_of s2 e2 a.
Proof.
  intros s1 s2 e1 e2 n H1 H2 N1 N2 Hb a. destruct (all_asgs_cover n a) as [a' [Hin Hag]].
  unfold bfun_eqb in Hb. rewrite forallb_forall in Hb. specialize (Hb a' Hin). apply eqb_prop in Hb.
  rewrite (cbfun_of_local s1 e1 a a' H1) by (rewrite N1; exact Hag).
  rewrite (cbfun_of_local s2 e2 a a' H2) by (rewrite N2; exact Hag). exact Hb.
Qed.

Lemma cbfun_eq_enum_spec : forall s e n (F : bfun), WF s -> nlevels s = n ->
  (forall a a', (forall v, (v < n)%nat -> a v = a' v) -> F a = F a') ->
  bfun_eqb n (cbfun_of s e) F = true -> forall a, cbfun_of s e a = F a.
Proof.
  intros s e n F H N Hloc Hb a. destruct (all_asgs_cover n a) as [a' [Hin Hag]].
  unfold bfun_eqb in Hb. rewrite forallb_forall in Hb. specialize (Hb a' Hin). apply eqb_prop in Hb.
  rewrite (cbfun_of_local s e a a' H) by (rewrite N; exact Hag). rewrite Hb. symmetry. apply Hloc. exact Hag.
Qed.

(** ** Configuration A: unbounded cache, [f < g] always true *)

Definition ltA : edge -> edge -> bool := fun _ _ => true.
Notation stepA := (hstep_c ltA eacache eac_get eac_add []).
Notation runA := (hrun_c ltA eacache eac_get eac_add []).
Lemma cemptyA : forall k a, eac_get [] k a = None.
Proof. reflexivity. Qed.

(** ** Configuration B: no cache, [f < g] never true *)

Definition ltB : edge -> edge -> bool := fun _ _ => false.
Notation stepB := (hstep_c ltB unit enc_get enc_add tt).
Notation runB := (hrun_c ltB unit enc_get enc_add tt).
Lemma cemptyB : forall k a, enc_get tt k a = None.
Proof. reflexivity. Qed.

(** ** The long history *)

Definition exc_ops : list hop :=
  [ HVar 0 0 false;                       (* x0 *)
    HVar 1 1 false;                       (* x1 *)
    HVar 2 2 false;                       (* x2 *)
    HConst 3 false;                       (* false = the complemented edge to the terminal *)
    HBin OAnd 4 0 1;                      (* x0 /\ x1 *)
    HBin OOr 5 4 2;                       (* f = x0 /\ x1 \/ x2  (or = not nor: tag flips) *)
    HNot 6 5;                             (* ~f: the tag flip *)
    HIte 7 0 1 2;                         (* if x0 then x1 else x2 *)
    HQuant QExists 8 5 1;                 (* exists x1. f  (not (forall-and (not t) (not e))) *)
    HApplyQuant QForall OOr 9 0 2 1;      (* forall x1. x0 \/ x2  (dispatch: not (exists. and (not f) (not g))) *)
    HVar 11 2 true;                       (* ~x2 *)
    HBin OAnd 10 0 11;                    (* the cube x0 /\ ~x2: a complemented edge *)
    HRestrict 12 5 10;
    HNewSubst [(0%nat, 1); (1%nat, 6)];   (* x0 := x1, x1 := ~f (a complemented replacement); id 0 *)
    HSubst 13 5 0;
    HClone 14 5;
    HDrop 6;                              (* ~f now lives only inside the substitution object *)
    HGc;
    HSetVarOrder [2%nat; 0%nat; 1%nat];
    HAddVars 1;
    HVar 15 3 false;                      (* the new variable *)
    HBin OXor 16 5 15;                    (* f xor x3 *)
    HSubst 17 7 0;                        (* the old substitution object, after gc + reordering *)
    HBin OEquiv 18 16 15;                 (* (f xor x3) <-> x3  =  ~f *)
    HNot 19 18;                           (* = f: must be the edge of slot 5 *)
    HGc ].

Definition exc_stA : hstate_c eacache :=
  match runA (hinit_c eacache [] 3) exc_ops with Some st => st | None => hinit_c eacache [] 0 end.

Lemma exc_preA : hops_pre_cb ltA eacache eac_get eac_add [] (hinit_c eacache [] 3) exc_ops = true.
Proof. vm_compute. reflexivity. Qed.

(** by [hrun_c_checked], without evaluating the run *)
Lemma exc_runA : runA (hinit_c eacache [] 3) exc_ops = Some exc_stA.
Proof.
  destruct (hrun_c_checked ltA eacache eac_get eac_add eac_lossy [] cemptyA 3 exc_ops exc_preA) as [st [E _]].
  unfold exc_stA. rewrite E. reflexivity.
Qed.

(** the final state as a value: the facts below are read off it, so that checking
    them does not run the history again each time *)
Definition exc_valA : hstate_c eacache := Eval vm_compute in exc_stA.
Lemma exc_stA_val : exc_stA = exc_valA.
Proof. vm_compute. reflexivity. Qed.

(** every constructor occurs ([hop_tag] of Mgr/HistoryExamples.v) *)
Lemma exc_ops_cover : forallb (fun t => existsb (fun o => Nat.eqb (hop_tag o) t) exc_ops) (seq 0 15) = true
                      /\ length exc_ops = 26%nat.
Proof. vm_compute. auto. Qed.

(** the run is not trivial: nodes were created, removed and reordered, and
    complemented edges occur in slots, in nodes and in the substitution object *)
Lemma exc_stA_shape :
  PositiveMap.cardinal (s_nodes (hc_s eacache exc_stA)) = 16%nat /\
  s_l2v (hc_s eacache exc_stA) = [2; 0; 1; 3]%nat /\
  s_v2l (hc_s eacache exc_stA) = [1; 2; 0; 3]%nat /\
  length (s_handles (hc_s eacache exc_stA)) = 19%nat /\
  hc_next eacache exc_stA = 1 /\
  wf_b (hc_s eacache exc_stA) = true /\
  existsb (fun h : N * edge => etag (snd h)) (s_handles (hc_s eacache exc_stA)) = true /\
  existsb (fun p : positive * node => existsb etag (nchildren (snd p)))
          (PositiveMap.elements (s_nodes (hc_s eacache exc_stA))) = true /\
  existsb (fun p : N * cpairs => existsb (fun vr : nat * edge => etag (snd vr)) (snd p))
          (hc_reg eacache exc_stA) = true.
Proof. rewrite exc_stA_val. vm_compute. repeat split; reflexivity. Qed.

Theorem exc_reachA : hreach_c ltA eacache eac_get eac_add [] 3 exc_stA.
Proof.
  exists exc_ops. split; [|exact exc_runA].
  apply (hops_pre_cb_spec ltA eacache eac_get eac_add []). exact exc_preA.
Qed.

Theorem exc_invA : HInvC eacache eac_get exc_stA.
Proof. apply (hreach_c_inv ltA eacache eac_get eac_add eac_lossy [] cemptyA 3). exact exc_reachA. Qed.

(** the theorems, instantiated *)
Theorem exc_wfA : wf_b (hc_s eacache exc_stA) = true /\ bcok_b (hc_s eacache exc_stA) = true.
Proof. apply (histc_wf ltA eacache eac_get eac_add eac_lossy [] cemptyA 3). exact exc_reachA. Qed.

(** slots 5, 14 (a clone) and 19 ([not (equiv (xor f x3) x3)]) hold the same
    edge; slot 18 holds the same node with the other tag; slots 5 and 7 hold
    different edges, hence (canonicity) different functions *)
Theorem exc_canonA :
  hget (s_handles (hc_s eacache exc_stA)) 5 = hget (s_handles (hc_s eacache exc_stA)) 14 /\
  hget (s_handles (hc_s eacache exc_stA)) 5 = hget (s_handles (hc_s eacache exc_stA)) 19 /\
  option_map enot (hget (s_handles (hc_s eacache exc_stA)) 5) = hget (s_handles (hc_s eacache exc_stA)) 18 /\
  forall e5 e7, hget (s_handles (hc_s eacache exc_stA)) 5 = Some e5 ->
                hget (s_handles (hc_s eacache exc_stA)) 7 = Some e7 ->
    ~ (forall a, cbfun_of (hc_s eacache exc_stA) e5 a = cbfun_of (hc_s eacache exc_stA) e7 a).
Proof.
  (* the [let] makes this one evaluation of the run instead of eight *)
  assert (Hs : let hs := s_handles (hc_s eacache exc_stA) in
               hget hs 5 = hget hs 14 /\ hget hs 5 = hget hs 19 /\
               option_map enot (hget hs 5) = hget hs 18 /\ hget hs 5 <> hget hs 7).
  { rewrite exc_stA_val. vm_compute. repeat split; discriminate || reflexivity. }
  destruct Hs as [A [B [D Y]]]. split; [exact A|]. split; [exact B|]. split; [exact D|].
  intros e5 e7 E5 E7 Heq. apply Y. rewrite E5, E7. f_equal.
  apply (proj2 (histc_canonical ltA eacache eac_get eac_add eac_lossy [] cemptyA 3 exc_stA exc_reachA 5 7 e5 e7 E5 E7)).
  exact Heq.
Qed.

(** ** The fresh manager *)

Definition exc_fresh : list hop :=
  [ HSetVarOrder [2%nat; 0%nat; 1%nat];
    HVar 0 0 false; HVar 1 1 false; HVar 2 2 false;
    HBin OAnd 3 0 1;
    HBin OOr 4 3 2;                       (* x0 /\ x1 \/ x2 *)
    HIte 5 0 1 2 ].                       (* if x0 then x1 else x2 *)

Definition exc_stB : hstate_c unit :=
  match runB (hinit_c unit tt 4) exc_fresh with Some st => st | None => hinit_c unit tt 0 end.

Lemma exc_preB : hops_pre_cb ltB unit enc_get enc_add tt (hinit_c unit tt 4) exc_fresh = true.
Proof. vm_compute. reflexivity. Qed.

Lemma exc_runB : runB (hinit_c unit tt 4) exc_fresh = Some exc_stB.
Proof.
  destruct (hrun_c_checked ltB unit enc_get enc_add enc_lossy tt cemptyB 4 exc_fresh exc_preB) as [st [E _]].
  unfold exc_stB. rewrite E. reflexivity.
Qed.

Theorem exc_reachB : hreach_c ltB unit enc_get enc_add tt 4 exc_stB.
Proof.
  exists exc_fresh. split; [|exact exc_runB].
  apply (hops_pre_cb_spec ltB unit enc_get enc_add tt). exact exc_preB.
Qed.

Lemma exc_same_order :
  s_l2v (hc_s eacache exc_stA) = s_l2v (hc_s unit exc_stB) /\ s_v2l (hc_s eacache exc_stA) = s_v2l (hc_s unit exc_stB).
Proof. destruct exc_stA_shape as [_ [L [V _]]]. rewrite L, V. vm_compute. split; reflexivity. Qed.

(** the operands in the two managers *)
Definition slot_edge (C : Type) (st : hstate_c C) (k : N) : edge :=
  match cslot C st k with Some e => e | None => mkEdge (RT 0) false end.

(** for a list of slots: one evaluation of the state serves all of them *)
Lemma slot_edge_some : forall C (st : hstate_c C) ks, forallb (occupied_cb C st) ks = true ->
  forall k, In k ks -> cslot C st k = Some (slot_edge C st k).
Proof.
  intros C st ks Hb k Hk. rewrite forallb_forall in Hb. specialize (Hb k Hk).
  unfold occupied_cb, slot_edge in *. destruct (cslot C st k); [reflexivity | discriminate].
Qed.

Lemma exc_slotsA : forall k, In k [1; 5; 7; 10] -> cslot eacache exc_stA k = Some (slot_edge eacache exc_stA k).
Proof. apply slot_edge_some. rewrite exc_stA_val. vm_compute. reflexivity. Qed.

Lemma exc_slotsB : forall k, In k [4; 5] -> cslot unit exc_stB k = Some (slot_edge unit exc_stB k).
Proof. apply slot_edge_some. vm_compute. reflexivity. Qed.

Definition gA5 : bfun := cbfun_of (hc_s eacache exc_stA) (slot_edge eacache exc_stA 5).
Definition gA7 : bfun := cbfun_of (hc_s eacache exc_stA) (slot_edge eacache exc_stA 7).

Lemma exc_holdsA5 : holds_c eacache exc_stA 5 gA5.
Proof. exists (slot_edge eacache exc_stA 5). split; [apply exc_slotsA; simpl; auto | intros a; unfold gA5; reflexivity]. Qed.
Lemma exc_holdsA7 : holds_c eacache exc_stA 7 gA7.
Proof. exists (slot_edge eacache exc_stA 7). split; [apply exc_slotsA; simpl; auto | intros a; unfold gA7; reflexivity]. Qed.

Lemma exc_wfB : WF (hc_s unit exc_stB).
Proof.
  apply bc_wf, (hic_bc unit enc_get), (hreach_c_inv ltB unit enc_get enc_add enc_lossy tt cemptyB 4), exc_reachB.
Qed.

Lemma exc_WFA : WF (hc_s eacache exc_stA).
Proof. apply bc_wf, (hic_bc eacache eac_get), exc_invA. Qed.

Lemma exc_nA : nlevels (hc_s eacache exc_stA) = 4%nat.
Proof. unfold nlevels. rewrite (proj1 (proj2 exc_stA_shape)). reflexivity. Qed.
Lemma exc_nB : nlevels (hc_s unit exc_stB) = 4%nat.
Proof. vm_compute. reflexivity. Qed.

(** the [let]s make it one evaluation of each state for the four comparisons *)
Lemma exc_enums : let stA := exc_stA in let stB := exc_stB in
  bfun_eqb 4 (cbfun_of (hc_s unit stB) (slot_edge unit stB 4)) (cbfun_of (hc_s eacache stA) (slot_edge eacache stA 5)) = true /\
  bfun_eqb 4 (cbfun_of (hc_s unit stB) (slot_edge unit stB 5)) (cbfun_of (hc_s eacache stA) (slot_edge eacache stA 7)) = true /\
  bfun_eqb 4 (cbfun_of (hc_s eacache stA) (slot_edge eacache stA 1)) (conj_vars [1%nat]) = true /\
  bfun_eqb 4 (cbfun_of (hc_s eacache stA) (slot_edge eacache stA 10)) (cube_fun [(0%nat, true); (2%nat, false)]) = true.
Proof. rewrite exc_stA_val. vm_compute. repeat split; reflexivity. Qed.


(** slot 4 / slot 5 of the fresh manager hold the same functions as slot 5 /
    slot 7 of the long-lived one (decided over all 16 assignments) *)
Lemma exc_holdsB4 : holds_c unit exc_stB 4 gA5.
Proof.
  exists (slot_edge unit exc_stB 4). split; [apply exc_slotsB; simpl; auto|].
  exact (cbfun_eq_enum (hc_s unit exc_stB) (hc_s eacache exc_stA) (slot_edge unit exc_stB 4) (slot_edge eacache exc_stA 5)
                       4%nat exc_wfB exc_WFA exc_nB exc_nA (proj1 exc_enums)).
Qed.
Lemma exc_holdsB5 : holds_c unit exc_stB 5 gA7.
Proof.
  exists (slot_edge unit exc_stB 5). split; [apply exc_slotsB; simpl; auto|].
  exact (cbfun_eq_enum (hc_s unit exc_stB) (hc_s eacache exc_stA) (slot_edge unit exc_stB 5) (slot_edge eacache exc_stA 7)
                       4%nat exc_wfB exc_WFA exc_nB exc_nA (proj1 (proj2 exc_enums))).
Qed.

(** C08 / C01: the exclusive-or computed in the long-lived manager (after 26
    calls, two collections, a reordering, an added variable; cache, swapped
    operands) and in the fresh one (no cache) denote the same function, carry
    the same complement tag and have the same number of nodes *)
Theorem exc_fresh_equiv :
  exists stA' stB' r1 r2,
    stepA exc_stA (HBin OXor 20 5 7) = Some stA' /\ stepB exc_stB (HBin OXor 6 4 5) = Some stB' /\
    cslot eacache stA' 20 = Some r1 /\ cslot unit stB' 6 = Some r2 /\
    (forall a, cbfun_of (hc_s eacache stA') r1 a = lift2 OXor gA5 gA7 a) /\
    (forall a, cbfun_of (hc_s unit stB') r2 a = lift2 OXor gA5 gA7 a) /\
    etag r1 = etag r2 /\
    count_reach (hc_s eacache stA') r1 = count_reach (hc_s unit stB') r2 /\
    wf_b (hc_s eacache stA') = true /\ wf_b (hc_s unit stB') = true.
Proof.
  apply (histc_fresh_equiv ltA ltB eacache unit eac_get eac_add enc_get enc_add eac_lossy enc_lossy [] tt cemptyA cemptyB
           3 4 exc_ops exc_fresh exc_stA exc_stB).
  - apply (hops_pre_cb_spec ltA eacache eac_get eac_add []). exact exc_preA.
  - exact exc_runA.
  - apply (hops_pre_cb_spec ltB unit enc_get enc_add tt). exact exc_preB.
  - exact exc_runB.
  - apply exc_same_order.
  - apply exc_same_order.
  - apply SpcBin; [exact exc_holdsA5 | exact exc_holdsA7].
  - apply SpcBin; [exact exc_holdsB4 | exact exc_holdsB5].
Qed.

(** what the two results actually are: (node count, node count, tag, tag, same reference?) *)
Definition exc_fresh_observed :=
  match stepA exc_stA (HBin OXor 20 5 7), stepB exc_stB (HBin OXor 6 4 5) with
  | Some a, Some b =>
    (count_reach (hc_s eacache a) (slot_edge eacache a 20),
     count_reach (hc_s unit b) (slot_edge unit b 6),
     etag (slot_edge eacache a 20), etag (slot_edge unit b 6),
     ref_eqb (eref (slot_edge eacache a 20)) (eref (slot_edge unit b 6)))
  | _, _ => (0, 0, false, false, true)
  end.

(** 4 nodes each (3 inner nodes + the terminal), both edges complemented, different node ids *)
Lemma exc_fresh_values : exc_fresh_observed = (4, 4, true, true, false).
Proof. vm_compute. reflexivity. Qed.

(** ** The hypotheses of [hspec_c] for quantification, restriction and substitution are satisfiable *)

(** slot 1 holds the variable set {x1}; slot 10 the cube x0 /\ ~x2 *)

Lemma exc_holds_vars : holds_c eacache exc_stA 1 (conj_vars [1%nat]).
Proof.
  exists (slot_edge eacache exc_stA 1). split; [apply exc_slotsA; simpl; auto|].
  apply (cbfun_eq_enum_spec _ _ 4%nat _ exc_WFA exc_nA); [|exact (proj1 (proj2 (proj2 exc_enums)))].
  apply conj_vars_local. intros v [<-|[]]. lia.
Qed.

Lemma exc_holds_cube : holds_c eacache exc_stA 10 (cube_fun [(0%nat, true); (2%nat, false)]).
Proof.
  exists (slot_edge eacache exc_stA 10). split; [apply exc_slotsA; simpl; auto|].
  apply (cbfun_eq_enum_spec _ _ 4%nat _ exc_WFA exc_nA); [|exact (proj2 (proj2 (proj2 exc_enums)))].
  apply cube_fun_local. intros p [<-|[<-|[]]]; simpl; lia.
Qed.

(** exists x1. (slot 5) *)
Theorem exc_spec_quant :
  exists st', stepA exc_stA (HQuant QExists 21 5 1) = Some st' /\
              holds_c eacache st' 21 (exists_s [1%nat] gA5).
Proof.
  destruct (hstep_c_spec ltA eacache eac_get eac_add eac_lossy [] cemptyA exc_stA _ 21 _ exc_invA
              (SpcQuant eacache exc_stA QExists 21 5 1 gA5 [1%nat] exc_holdsA5 exc_holds_vars
                 ltac:(intros v [<-|[]]; rewrite exc_nA; lia) ltac:(discriminate)))
    as [st' [E [_ [_ Hd]]]].
  exists st'. split; [exact E | exact Hd].
Qed.

(** (slot 5) restricted to x0 = true, x2 = false *)
Theorem exc_spec_restrict :
  exists st', stepA exc_stA (HRestrict 21 5 10) = Some st' /\
              holds_c eacache st' 21 (restrict_s [(0%nat, true); (2%nat, false)] gA5).
Proof.
  destruct (hstep_c_spec ltA eacache eac_get eac_add eac_lossy [] cemptyA exc_stA _ 21 _ exc_invA
              (SpcRestrict eacache exc_stA 21 5 10 gA5 [(0%nat, true); (2%nat, false)] exc_holdsA5 exc_holds_cube
                 ltac:(repeat constructor; simpl; intuition discriminate)
                 ltac:(intros p [<-|[<-|[]]]; rewrite exc_nA; simpl; lia)))
    as [st' [E [_ [_ Hd]]]].
  exists st'. split; [exact E | exact Hd].
Qed.

(** the substitution object created by call 14, applied once more in the final state *)
Definition exc_rp : cpairs :=
  match creg_fn (hc_reg eacache exc_stA) 0 with Some rp => rp | None => [] end.

Lemma exc_reg0 : creg_fn (hc_reg eacache exc_stA) 0 = Some exc_rp.
Proof. unfold exc_rp. rewrite exc_stA_val. vm_compute. reflexivity. Qed.

Lemma sub_funs_c_refl : forall s rp, sub_funs_c s rp (map (fun p : nat * edge => (fst p, cbfun_of s (snd p))) rp).
Proof.
  intros s rp. unfold sub_funs_c. induction rp as [|p r IH]; simpl; constructor; [|exact IH].
  split; [reflexivity | intros a; reflexivity].
Qed.

Lemma exc_bcokA : BcOK (hc_s eacache exc_stA).
Proof. apply (hic_bc eacache eac_get exc_stA exc_invA). Qed.

Theorem exc_spec_subst :
  exists st', stepA exc_stA (HSubst 21 5 0) = Some st' /\ length exc_rp = 2%nat /\
    existsb (fun vr : nat * edge => etag (snd vr)) exc_rp = true /\
    holds_c eacache st' 21
      (subst_s (map (fun p : nat * edge => (fst p, cbfun_of (hc_s eacache exc_stA) (snd p))) exc_rp) gA5).
Proof.
  destruct (hstep_c_spec ltA eacache eac_get eac_add eac_lossy [] cemptyA exc_stA _ 21 _ exc_invA
              (SpcSubst eacache exc_stA 21 5 0 gA5 exc_rp _ exc_holdsA5
                 (aext_cbfun_of _ exc_bcokA _) exc_reg0 (sub_funs_c_refl _ exc_rp)))
    as [st' [E [_ [_ Hd]]]].
  exists st'. split; [exact E|]. split; [vm_compute; reflexivity|]. split; [vm_compute; reflexivity | exact Hd].
Qed.
