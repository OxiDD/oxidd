(** * The invariant of the BCDD manager state machine and its preservation by every call

    The complement-edge counterpart of Mgr/HistoryProofs.v, statement by
    statement.

    [HInvC st]: the table is a well-formed BCDD table with its single
    terminal ([BcOK], which includes: every handle slot refers to a stored
    node or the terminal), the apply cache serves only correct entries for all
    operator kinds ([QCacheOKC]), every substitution object names existing
    variables (each once) and stored functions, and the id counter is above
    all ids in use.

    [hstep_c_ok]: for every state satisfying [HInvC], every configuration
    (edge order [lt], any [lossyC] cache with any content that satisfies the
    cache invariant) and every well-formed request ([hop_pre_c]: the operand
    slots are occupied, variables exist, a requested order names no variable
    twice), the call
    - runs to completion ([hstep_c] is not [None]: none of the code's [unwrap]s fires),
    - re-establishes [HInvC],
    - [hframe_c]: changes no slot other than its destination, and every edge
      held by a slot or by a substitution object before the call is still
      stored and denotes the same function of the VARIABLES ([cbfun_of]:
      [semc] through [s_l2v]),
    - [hpost_c]: leaves in its destination the spec function (DD/Sem.v) of the
      operands' functions at the time of the call. *)

From Coq Require Import List NArith PArith Bool Arith Lia FMapPositive.
From OxiVerif Require Import DD.Table DD.TableProofs DD.Canon DD.CanonBcdd DD.Sem DD.Build DD.BuildProofs
  DD.Apply DD.ApplyProofs DD.ApplyEvalProofs DD.ConfigApply DD.ConfigRun
  DD.ApplyBcdd DD.ApplyBcddProofs DD.ApplyBcddIte DD.ApplyBcddEval
  DD.Quant DD.QuantSpecProofs DD.QuantLemmas DD.QuantTopProofs
  DD.QuantBcdd DD.QuantBcddLemmas DD.SubstBcddProofs DD.QuantBcddTop
  DD.FamSpecProofs Mgr.SortOrder Mgr.SortOrderProofs Mgr.LevelSwap Mgr.LevelSwapOrder Mgr.LevelSwapC Mgr.OomGc
  Mgr.History Mgr.HistoryBase Mgr.HistoryGc Mgr.HistoryReorder Mgr.HistoryProofs Mgr.HistoryC Mgr.HistoryCBase.
Import ListNotations.

Local Arguments hset : simpl never.
Local Arguments hget : simpl never.
Local Arguments hdel : simpl never.
Local Arguments cbfun_of : simpl never.

Definition cpairs_wf (s : snap) (pairs : cpairs) : Prop :=
  NoDup (map fst pairs) /\ forall v e, In (v, e) pairs -> v < nlevels s /\ ref_ok s (eref e).

Section HistC.
Variable lt : edge -> edge -> bool.
Variable C : Type.
Variable cget : C -> N -> list edge -> option edge.
Variable cadd : C -> N -> list edge -> edge -> C.
Hypothesis Hlossy : lossyC cget cadd.
Variable cempty : C.
Hypothesis Hempty : forall k a, cget cempty k a = None.

Notation hstate_c := (hstate_c C).
Notation hstep_c := (hstep_c lt C cget cadd cempty).
Notation hrun_c := (hrun_c lt C cget cadd cempty).
Notation mkHC := (mkHC C).
Notation QOK reg := (QCacheOKC cget (creg_fn reg)).

Record HInvC (st : hstate_c) : Prop := mkHInvC {
  hic_bc : BcOK (hc_s C st);
  hic_cache : QOK (hc_reg C st) (hc_s C st) (hc_c C st);
  hic_reg : forall id pairs, In (id, pairs) (hc_reg C st) -> cpairs_wf (hc_s C st) pairs;
  hic_fresh : forall id pairs, In (id, pairs) (hc_reg C st) -> (id < hc_next C st)%N
}.

(** everything a client still holds: the edges in the slots and the
    replacement functions inside the substitution objects *)
Definition croot (st : hstate_c) (e : edge) : Prop :=
  (exists h, In h (s_handles (hc_s C st)) /\ snd h = e) \/
  (exists id pairs v, In (id, pairs) (hc_reg C st) /\ In (v, e) pairs).

Lemma croot_ok : forall st e, HInvC st -> croot st e -> ref_ok (hc_s C st) (eref e).
Proof.
  intros st e I [[h [Hin <-]]|[id [pairs [v [Hin Hp]]]]].
  - apply (bc_handle_ok _ h (hic_bc st I) Hin).
  - apply (proj2 (hic_reg st I id pairs Hin) v e Hp).
Qed.

Lemma cslot_root : forall st k e, cslot C st k = Some e -> croot st e.
Proof.
  intros st k e E. unfold cslot in E. left. exists (k, e). split; [apply hget_In; exact E | reflexivity].
Qed.

Lemma cslot_ok : forall st k e, HInvC st -> cslot C st k = Some e -> ref_ok (hc_s C st) (eref e).
Proof. intros st k e I E. apply (croot_ok st e I). apply (cslot_root st k e E). Qed.

Lemma qokc_empty : forall reg s, QOK reg s cempty.
Proof. intros reg s. split; intros code args r E; rewrite Hempty in E; discriminate. Qed.

Lemma cpairs_range : forall st, HInvC st ->
  forall id pairs, creg_fn (hc_reg C st) id = Some pairs -> cpairs_in_range (hc_s C st) pairs.
Proof.
  intros st I id pairs E v r Hin.
  apply (proj2 (hic_reg st I id pairs (creg_fn_In _ _ _ E)) v r Hin).
Qed.

(** ** Well-formed requests *)

Definition occupied_c (st : hstate_c) (k : N) : Prop := exists e, cslot C st k = Some e.

Definition hop_pre_c (st : hstate_c) (o : hop) : Prop :=
  match o with
  | HConst _ _ => True
  | HVar _ v _ => v < nlevels (hc_s C st)
  | HNot _ a => occupied_c st a
  | HBin _ _ a b => occupied_c st a /\ occupied_c st b
  | HIte _ a b c => occupied_c st a /\ occupied_c st b /\ occupied_c st c
  | HQuant _ _ a vars => occupied_c st a /\ occupied_c st vars
  | HApplyQuant _ _ _ a b vars => occupied_c st a /\ occupied_c st b /\ occupied_c st vars
  | HRestrict _ a cube => occupied_c st a /\ occupied_c st cube
  | HNewSubst pairs =>
    NoDup (map fst pairs) /\
    forall v k, In (v, k) pairs -> v < nlevels (hc_s C st) /\ occupied_c st k
  | HSubst _ a id => occupied_c st a /\ exists pairs, creg_fn (hc_reg C st) id = Some pairs
  | HClone _ a => occupied_c st a
  | HDrop _ => True
  | HGc => True
  | HAddVars _ => True
  | HSetVarOrder order => NoDup order /\ Forall (fun v => v < nlevels (hc_s C st)) order
  end.

(** ** The frame *)

Definition hframe_c (st : hstate_c) (o : hop) (st' : hstate_c) : Prop :=
  (forall x, hdst o <> Some x ->
     hget (s_handles (hc_s C st')) x = hget (s_handles (hc_s C st)) x) /\
  (forall e, croot st e ->
     ref_ok (hc_s C st') (eref e) /\ forall a, cbfun_of (hc_s C st') e a = cbfun_of (hc_s C st) e a) /\
  (changes_order o = false -> order_same (hc_s C st) (hc_s C st')).

(** ** What the destination holds afterwards *)

Definition holds_c (st : hstate_c) (d : N) (F : bfun) : Prop :=
  exists e, cslot C st d = Some e /\ forall a, cbfun_of (hc_s C st) e a = F a.

Definition hpost_c (st : hstate_c) (o : hop) (st' : hstate_c) : Prop :=
  let s := hc_s C st in
  match o with
  | HConst d b => holds_c st' d (const_s b)
  | HVar d v neg => holds_c st' d (fun a => xorb neg (var_s v a))
  | HNot d x =>
    exists f, cslot C st x = Some f /\ holds_c st' d (lift1 negb (cbfun_of s f))
  | HBin op d x y =>
    exists f g, cslot C st x = Some f /\ cslot C st y = Some g /\
      holds_c st' d (lift2 op (cbfun_of s f) (cbfun_of s g))
  | HIte d x y z =>
    exists f g h, cslot C st x = Some f /\ cslot C st y = Some g /\ cslot C st z = Some h /\
      holds_c st' d (ite_s (cbfun_of s f) (cbfun_of s g) (cbfun_of s h))
  | HQuant q d x vars =>
    exists f V, cslot C st x = Some f /\ cslot C st vars = Some V /\
      forall vs, (forall v, In v vs -> v < nlevels s) -> is_varsetC s V vs -> (q = QUnique -> NoDup vs) ->
        holds_c st' d (quant (qfun q) vs (cbfun_of s f))
  | HApplyQuant q op d x y vars =>
    exists f g V, cslot C st x = Some f /\ cslot C st y = Some g /\ cslot C st vars = Some V /\
      forall vs, (forall v, In v vs -> v < nlevels s) -> is_varsetC s V vs -> (q = QUnique -> NoDup vs) ->
        holds_c st' d (quant (qfun q) vs (lift2 op (cbfun_of s f) (cbfun_of s g)))
  | HRestrict d x cube =>
    exists f V, cslot C st x = Some f /\ cslot C st cube = Some V /\
      forall lits, NoDup (map fst lits) -> (forall p, In p lits -> fst p < nlevels s) -> is_cubeC s V lits ->
        holds_c st' d (restrict_s lits (cbfun_of s f))
  | HNewSubst pairs =>
    exists rp, cresolve_pairs (s_handles s) pairs = Some rp /\
      creg_fn (hc_reg C st') (hc_next C st) = Some rp /\ hc_next C st' = N.succ (hc_next C st) /\
      (forall id, id <> hc_next C st -> creg_fn (hc_reg C st') id = creg_fn (hc_reg C st) id) /\
      hc_s C st' = s
  | HSubst d x id =>
    exists f rp, cslot C st x = Some f /\ creg_fn (hc_reg C st) id = Some rp /\
      holds_c st' d (subst_s (map (fun p => (fst p, cbfun_of s (snd p))) rp) (cbfun_of s f))
  | HClone d x => hget (s_handles (hc_s C st')) d = hget (s_handles s) x /\ occupied_c st' d
  | HDrop x => hget (s_handles (hc_s C st')) x = None /\ s_nodes (hc_s C st') = s_nodes s
  | HGc =>
    (forall id nd, find_node (hc_s C st') id = Some nd ->
       find_node s id = Some nd /\ exists e, croot st e /\ reachable s [eref e] (RN id))
  | HAddVars k =>
    s_l2v (hc_s C st') = s_l2v s ++ seq (nlevels s) k /\
    s_v2l (hc_s C st') = s_v2l s ++ seq (nlevels s) k /\ s_nodes (hc_s C st') = s_nodes s
  | HSetVarOrder order =>
    nlevels (hc_s C st') = nlevels s /\
    forall a b, a < b < length order ->
      nth (nth a order 0) (s_v2l (hc_s C st')) 0 < nth (nth b order 0) (s_v2l (hc_s C st')) 0
  end.

(** ** A new table and cache under an unchanged registry *)

Lemma hinvc_table : forall st s' c', HInvC st -> BcOK s' -> QOK (hc_reg C st) s' c' ->
  nlevels (hc_s C st) <= nlevels s' -> (forall e, croot st e -> ref_ok s' (eref e)) ->
  HInvC (mkHC s' c' (hc_reg C st) (hc_next C st)).
Proof.
  intros st s' c' I B' Q' Hn Ok. constructor; simpl; [exact B' | exact Q' | | apply (hic_fresh st I)].
  intros id pairs Hin. destruct (hic_reg st I id pairs Hin) as [Hnd Hp]. split; [exact Hnd|].
  intros v e Hve. split; [pose proof (proj1 (Hp v e Hve)); lia|].
  apply Ok. right. exists id, pairs, v. auto.
Qed.

Lemma qokc_widen : forall st s' k hs c', HInvC st -> WF s' -> nlevels (hc_s C st) <= nlevels s' ->
  QOK (hc_reg C st) s' c' -> QOK (hc_reg C st) (widen s' k hs) c'.
Proof.
  intros st s' k hs c' I H' Hn Q'. apply qcacheokc_widen; [exact H' | | exact Q'].
  intros id pairs E v r Hin. pose proof (cpairs_range st I id pairs E v r Hin). lia.
Qed.

(** ** Storing the result of an algorithm *)

Lemma hinvc_put : forall st s' c' d r, HInvC st ->
  BcOK s' -> extends (hc_s C st) s' -> QOK (hc_reg C st) s' c' -> ref_ok s' (eref r) ->
  HInvC (mkHC (cput s' d r) c' (hc_reg C st) (hc_next C st)).
Proof.
  intros st s' c' d r I B' X Q' Or.
  assert (Hn : nlevels (hc_s C st) <= nlevels s') by (rewrite (ext_nlevels _ _ X); apply le_n).
  apply hinvc_table; [exact I | apply bcok_cput; assumption | | exact Hn |].
  - unfold cput. rewrite widen_set_handles. apply qokc_widen; [exact I | apply (bc_wf s' B') | exact Hn | exact Q'].
  - intros e0 Hr. apply (ext_ref_ok _ _ _ X (croot_ok st e0 I Hr)).
Qed.

Lemma framec_put : forall st o s' c' d r, HInvC st -> hdst o = Some d ->
  extends (hc_s C st) s' ->
  hframe_c st o (mkHC (cput s' d r) c' (hc_reg C st) (hc_next C st)).
Proof.
  intros st o s' c' d r I Hd X. split; [|split]; simpl.
  3: { intros _. split; [apply (ext_l2v _ _ X) | apply (ext_v2l _ _ X)]. }
  - intros x Hx. rewrite Hd in Hx. unfold cput. simpl.
    rewrite hget_hset_other by congruence. rewrite (ext_handles _ _ X). reflexivity.
  - intros e0 Hr. pose proof (croot_ok st e0 I Hr) as Ok. split.
    + unfold cput. apply (ext_ref_ok _ _ _ X Ok).
    + intros a. unfold cput. rewrite cbfun_of_set_handles.
      apply (cbfun_of_extends _ _ _ _ (bc_wf _ (hic_bc st I)) X Ok).
Qed.

Lemma holdsc_put : forall s' c' reg nx d r F, (forall a, cbfun_of s' r a = F a) ->
  holds_c (mkHC (cput s' d r) c' reg nx) d F.
Proof.
  intros s' c' reg nx d r F HF. exists r. split.
  - unfold cslot, cput. simpl. rewrite hget_hset_same. reflexivity.
  - intros a. simpl. unfold cput. rewrite cbfun_of_set_handles. apply HF.
Qed.

(** the common part of all calls that run an algorithm and store its result:
    what is left to show is the postcondition, on the state written out *)
Lemma cfinish_ok : forall st o d res s' c' r, HInvC st -> hdst o = Some d ->
  res = Some (s', c', r) ->
  BcOK s' -> extends (hc_s C st) s' -> QOK (hc_reg C st) s' c' -> ref_ok s' (eref r) ->
  hpost_c st o (mkHC (cput s' d r) c' (hc_reg C st) (hc_next C st)) ->
  exists st', cfinish C st d res = Some st' /\ HInvC st' /\ hframe_c st o st' /\ hpost_c st o st'.
Proof.
  intros st o d res s' c' r I Hd -> B' X Q' Or P. eexists. split; [reflexivity|].
  split; [apply hinvc_put; assumption|]. split; [apply framec_put; assumption | exact P].
Qed.

(** from a level-indexed denotation of the result to its function over variables *)
Lemma denc_to_bfun : forall s s' r Phi a, extends s s' -> DenC s' r Phi ->
  cbfun_of s' r a = Phi (choice_of s a).
Proof.
  intros s s' r Phi a X D. rewrite (cbfun_of_den s' r Phi D). unfold choice_of.
  rewrite (ext_l2v _ _ X). reflexivity.
Qed.

(** ** Garbage collection and reordering: a new table under the old handle list *)

Lemma croot_with_roots : forall st e,
  croot st e <-> exists h, In h (s_handles (with_roots_c C st)) /\ snd h = e.
Proof.
  intros st e. unfold with_roots_c. simpl. split.
  - intros [[h [Hin E]]|[id [p [v [Hin Hp]]]]].
    + exists h. split; [apply in_app_iff; left; exact Hin | exact E].
    + exists (id, e). split; [|reflexivity]. apply in_app_iff. right. apply creg_roots_In.
      exists id, p, v, e. auto.
  - intros [h [Hin E]]. apply in_app_iff in Hin. destruct Hin as [Hin|Hin].
    + left. exists h. auto.
    + apply creg_roots_In in Hin. destruct Hin as [id [p [v [e0 [Hin [Hp ->]]]]]].
      simpl in E. subst e0. right. exists id, p, v. auto.
Qed.

Lemma with_roots_c_ok : forall st, HInvC st -> BcOK (with_roots_c C st).
Proof.
  intros st I. apply bcok_set_handles; [apply (hic_bc st I)|].
  intros h Hin. apply (croot_ok st (snd h) I). apply croot_with_roots. exists h. auto.
Qed.

Lemma retable_c_ok : forall st o s2, HInvC st -> BcOK s2 -> nlevels s2 = nlevels (hc_s C st) ->
  (forall h, In h (s_handles (with_roots_c C st)) -> ref_ok s2 (eref (snd h))) ->
  (forall h a, In h (s_handles (with_roots_c C st)) ->
     cbfun_of s2 (snd h) a = cbfun_of (with_roots_c C st) (snd h) a) ->
  (changes_order o = false -> order_same (hc_s C st) s2) ->
  HInvC (mkHC (set_handles s2 (s_handles (hc_s C st))) cempty (hc_reg C st) (hc_next C st)) /\
  hframe_c st o (mkHC (set_handles s2 (s_handles (hc_s C st))) cempty (hc_reg C st) (hc_next C st)).
Proof.
  intros st o s2 I B2 Hn Ok2 Fn Ho.
  assert (Ok : forall e, croot st e -> ref_ok s2 (eref e)).
  { intros e Hr. apply croot_with_roots in Hr. destruct Hr as [h [Hin <-]]. apply (Ok2 h Hin). }
  split.
  - apply hinvc_table; [exact I | | apply qokc_empty | simpl; rewrite <- Hn; apply le_n | exact Ok].
    apply bcok_set_handles; [exact B2|]. intros h Hin. apply Ok. left. exists h. auto.
  - split; [intros x _; reflexivity|]. split; [|exact Ho].
    intros e Hr. split; [apply (Ok e Hr)|]. intros a. simpl. rewrite cbfun_of_set_handles.
    apply croot_with_roots in Hr. destruct Hr as [h [Hin <-]]. rewrite (Fn h a Hin).
    unfold with_roots_c. apply cbfun_of_set_handles.
Qed.

(** ** [Subst::new] reads occupied slots *)

Lemma cresolve_pairs_ok : forall st pairs,
  (forall v k, In (v, k) pairs -> v < nlevels (hc_s C st) /\ occupied_c st k) ->
  exists rp, cresolve_pairs (s_handles (hc_s C st)) pairs = Some rp /\ map fst rp = map fst pairs /\
    forall v e, In (v, e) rp -> v < nlevels (hc_s C st) /\ croot st e.
Proof.
  intros st. induction pairs as [|[v k] rest IH]; intros Hp.
  - exists []. split; [reflexivity|]. split; [reflexivity | intros ? ? []].
  - destruct (Hp v k (or_introl eq_refl)) as [Hv [e Er]].
    destruct IH as [rp [E1 [E2 E3]]]; [intros v0 k0 Hin; apply Hp; right; exact Hin|].
    pose proof (cslot_root st k e Er) as Rt. unfold cslot in Er. simpl. rewrite Er, E1.
    exists ((v, e) :: rp). split; [reflexivity|]. split; [simpl; rewrite E2; reflexivity|].
    intros v0 e0 [Heq|Hin]; [inversion Heq; subst; auto | apply E3; exact Hin].
Qed.

(** ** One call *)

Theorem hstep_c_ok : forall st o, HInvC st -> hop_pre_c st o ->
  exists st', hstep_c st o = Some st' /\ HInvC st' /\ hframe_c st o st' /\ hpost_c st o st'.
Proof.
  intros st o I Pre. pose proof (hic_bc st I) as B. pose proof (hic_cache st I) as Q.
  pose proof (bc_wf _ B) as H.
  destruct o as [d b|d v neg|d x|op d x y|d x y z|q d x vars|q op d x y vars|d x cube|pairs|d x id
                 |d x|x| |k|order]; simpl in Pre; cbn [HistoryC.hstep_c].
  - (* HConst *)
    destruct (cmk_const_sem _ b B) as [r [E D]]. rewrite E.
    apply (cfinish_ok st (HConst d b) d _ _ _ r I eq_refl eq_refl B (extends_refl _) Q (proj1 D)).
    apply holdsc_put. intros a. rewrite (cbfun_of_den _ r _ D). reflexivity.
  - (* HVar *)
    destruct (cmk_var_bfun _ v neg B Pre) as [s' [r [E [B' [X [Or S]]]]]]. rewrite E.
    apply (cfinish_ok st (HVar d v neg) d _ s' _ r I eq_refl eq_refl B' X
             (qcacheokc_extends C cget _ _ s' _ B X Q) Or).
    apply holdsc_put. exact S.
  - (* HNot: the complement bit is flipped, no node is built *)
    destruct Pre as [f Ef]. rewrite Ef. pose proof (cslot_ok st x f I Ef) as Of.
    destruct (denc_exists _ f B Of) as [phi Df].
    apply (cfinish_ok st (HNot d x) d _ _ _ (enot f) I eq_refl eq_refl B (extends_refl _) Q Of).
    exists f. split; [exact Ef|]. apply holdsc_put. intros a. unfold lift1.
    rewrite (cbfun_of_den _ _ _ (denc_not _ f phi Df)), (cbfun_of_den _ f phi Df). reflexivity.
  - (* HBin *)
    destruct Pre as [[f Ef] [g Eg]]. rewrite Ef, Eg.
    pose proof (cslot_ok st x f I Ef) as Of. pose proof (cslot_ok st y g I Eg) as Og.
    destruct (denc_exists _ f B Of) as [phi Df]. destruct (denc_exists _ g B Og) as [psi Dg].
    destruct (qc_apply_op lt C cget cadd Hlossy (creg_fn (hc_reg C st)) op _ (hc_c C st) f g phi psi B Q Df Dg)
      as [s' [c' [r [E [B' [X [Q' D']]]]]]].
    apply (cfinish_ok st (HBin op d x y) d _ s' c' r I eq_refl E B' X Q' (proj1 D')).
    exists f, g. split; [exact Ef|]. split; [exact Eg|]. apply holdsc_put. intros a.
    rewrite (denc_to_bfun _ s' r _ a X D'). unfold lift2.
    rewrite (cbfun_of_den _ f phi Df), (cbfun_of_den _ g psi Dg). reflexivity.
  - (* HIte *)
    destruct Pre as [[f Ef] [[g Eg] [h Eh]]]. rewrite Ef, Eg, Eh.
    pose proof (cslot_ok st x f I Ef) as Of. pose proof (cslot_ok st y g I Eg) as Og.
    pose proof (cslot_ok st z h I Eh) as Oh.
    destruct (denc_exists _ f B Of) as [phi Df]. destruct (denc_exists _ g B Og) as [psi Dg].
    destruct (denc_exists _ h B Oh) as [theta Dh].
    destruct (qc_apply_ite lt C cget cadd Hlossy (creg_fn (hc_reg C st)) _ (hc_c C st) f g h phi psi theta
                B Q Df Dg Dh) as [s' [c' [r [E [B' [X [Q' D']]]]]]].
    apply (cfinish_ok st (HIte d x y z) d _ s' c' r I eq_refl E B' X Q' (proj1 D')).
    exists f, g, h. split; [exact Ef|]. split; [exact Eg|]. split; [exact Eh|]. apply holdsc_put. intros a.
    rewrite (denc_to_bfun _ s' r _ a X D'). unfold ite_s.
    rewrite (cbfun_of_den _ f phi Df), (cbfun_of_den _ g psi Dg), (cbfun_of_den _ h theta Dh). reflexivity.
  - (* HQuant *)
    destruct Pre as [[f Ef] [V Ev]]. rewrite Ef, Ev.
    destruct (cquant_edge_sound lt C cget cadd Hlossy _ q _ (hc_c C st) f V B Q
                (cslot_ok st x f I Ef) (cslot_ok st vars V I Ev))
      as [s' [c' [r [E [B' [X [Q' [Or S]]]]]]]].
    apply (cfinish_ok st (HQuant q d x vars) d _ s' c' r I eq_refl E B' X Q' Or).
    exists f, V. split; [exact Ef|]. split; [exact Ev|].
    intros vs Hlt Hvs Hu. apply holdsc_put. apply (S vs Hlt Hvs Hu).
  - (* HApplyQuant *)
    destruct Pre as [[f Ef] [[g Eg] [V Ev]]]. rewrite Ef, Eg, Ev.
    destruct (capply_quant_edge_sound lt C cget cadd Hlossy _ q op _ (hc_c C st) f g V B Q
                (cslot_ok st x f I Ef) (cslot_ok st y g I Eg) (cslot_ok st vars V I Ev))
      as [s' [c' [r [E [B' [X [Q' [Or S]]]]]]]].
    apply (cfinish_ok st (HApplyQuant q op d x y vars) d _ s' c' r I eq_refl E B' X Q' Or).
    exists f, g, V. split; [exact Ef|]. split; [exact Eg|]. split; [exact Ev|].
    intros vs Hlt Hvs Hu. apply holdsc_put. apply (S vs Hlt Hvs Hu).
  - (* HRestrict *)
    destruct Pre as [[f Ef] [V Ev]]. rewrite Ef, Ev.
    destruct (crestrict_edge_sound C cget cadd Hlossy _ _ (hc_c C st) f V B Q
                (cslot_ok st x f I Ef) (cslot_ok st cube V I Ev))
      as [s' [c' [r [E [B' [X [Q' [Or S]]]]]]]].
    apply (cfinish_ok st (HRestrict d x cube) d _ s' c' r I eq_refl E B' X Q' Or).
    exists f, V. split; [exact Ef|]. split; [exact Ev|].
    intros lits Hnd Hlt Hc. apply holdsc_put. apply (S lits Hnd Hlt Hc).
  - (* HNewSubst *)
    destruct Pre as [Hnd Hp]. destruct (cresolve_pairs_ok st pairs Hp) as [rp [E1 [E2 E3]]]. rewrite E1.
    assert (Hfresh : creg_fn (hc_reg C st) (hc_next C st) = None).
    { destruct (creg_fn (hc_reg C st) (hc_next C st)) as [p|] eqn:Ex; [|reflexivity].
      pose proof (hic_fresh st I _ _ (creg_fn_In _ _ _ Ex)). lia. }
    eexists. split; [reflexivity|]. split; [|split].
    + constructor; simpl.
      * exact B.
      * apply (qcacheokc_register C cget (creg_fn (hc_reg C st)) _ (hc_c C st) (hc_next C st) rp Q Hfresh).
      * intros id p [Heq|Hin]; [|apply (hic_reg st I id p Hin)]. inversion Heq; subst.
        split; [rewrite E2; exact Hnd|]. intros v r Hin. destruct (E3 v r Hin) as [A Rt].
        split; [exact A | apply (croot_ok st r I Rt)].
      * intros id p [Heq|Hin]; [inversion Heq; subst; lia|]. pose proof (hic_fresh st I id p Hin). lia.
    + split; [|split]; simpl.
      * intros x _. reflexivity.
      * intros r Hr. split; [apply (croot_ok st r I Hr) | reflexivity].
      * intros _. split; reflexivity.
    + simpl. exists rp. split; [exact E1|]. split; [rewrite N.eqb_refl; reflexivity|].
      split; [reflexivity|]. split; [|reflexivity].
      intros id Hne. destruct (N.eqb_spec id (hc_next C st)); [contradiction | reflexivity].
  - (* HSubst *)
    destruct Pre as [[f Ef] [rp Er]]. rewrite Ef, Er.
    destruct (hic_reg st I id rp (creg_fn_In _ _ _ Er)) as [Hnd Hp].
    destruct (csubstitute_edge_sound lt C cget cadd Hlossy _ _ (hc_c C st) f rp id B Q
                (cslot_ok st x f I Ef) Hnd Hp Er)
      as [s' [c' [r [E [B' [X [Q' [Or S]]]]]]]].
    apply (cfinish_ok st (HSubst d x id) d _ s' c' r I eq_refl E B' X Q' Or).
    exists f, rp. split; [exact Ef|]. split; [exact Er|]. apply holdsc_put. exact S.
  - (* HClone *)
    destruct Pre as [f Ef]. rewrite Ef.
    apply (cfinish_ok st (HClone d x) d _ _ _ f I eq_refl eq_refl B (extends_refl _) Q (cslot_ok st x f I Ef)).
    simpl. unfold cput. simpl. rewrite hget_hset_same.
    unfold cslot in Ef. split; [symmetry; exact Ef|].
    exists f. unfold cslot. simpl. rewrite hget_hset_same. reflexivity.
  - (* HDrop *)
    eexists. split; [reflexivity|]. split; [|split].
    + apply hinvc_table; [exact I | apply bcok_drop; exact B | | apply le_n | intros e; apply (croot_ok st e I)].
      rewrite widen_set_handles. apply qokc_widen; [exact I | exact H | apply le_n | exact Q].
    + split; [|split]; simpl.
      * intros y Hy. apply hget_hdel_other. congruence.
      * intros r Hr. split; [apply (croot_ok st r I Hr) | intros a; apply cbfun_of_set_handles].
      * intros _. split; reflexivity.
    + simpl. split; [apply hget_hdel_same | reflexivity].
  - (* HGc: [collected_ok_c] for the table with the registry's edges among the handles *)
    pose proof (with_roots_c_ok st I) as B1.
    pose proof (gc_model_collected _ (bc_wf _ B1)) as Cg.
    destruct (collected_ok_c _ _ B1 Cg) as [Bg [Xg Hh]].
    destruct (retable_c_ok st HGc (gc_model (with_roots_c C st)) I Bg (eq_sym (ext_nlevels _ _ Xg)) Hh) as [I' F'].
    { intros h a Hin. symmetry. apply (cbfun_of_extends _ _ _ a (bc_wf _ Bg) Xg (Hh h Hin)). }
    { intros _. split; [symmetry; apply (ext_l2v _ _ Xg) | symmetry; apply (ext_v2l _ _ Xg)]. }
    eexists. split; [reflexivity|]. split; [exact I'|]. split; [exact F'|].
    simpl. intros id nd E. apply (gc_model_find _ (bc_wf _ B1)) in E. destruct E as [E R].
    split; [exact E|].
    destruct (reachable_one (with_roots_c C st) (hc_s C st) _ _ (fun _ => eq_refl) R) as [r [Hin Rr]].
    unfold handle_refs in Hin. apply in_map_iff in Hin. destruct Hin as [h [<- Hin]].
    exists (snd h). split; [|exact Rr]. apply croot_with_roots. exists h. auto.
  - (* HAddVars *)
    eexists. split; [reflexivity|]. rewrite widen_add_vars. split; [|split].
    + apply hinvc_table; [exact I | | | rewrite widen_nlevels; lia |].
      * apply bcok_widen; [exact B|]. intros h Hin. apply (bc_handle_ok _ h B Hin).
      * apply qokc_widen; [exact I | exact H | apply le_n | exact Q].
      * intros e Hr. apply ref_ok_widen. apply (croot_ok st e I Hr).
    + split; [|split]; simpl.
      * intros x _. reflexivity.
      * intros e Hr. pose proof (croot_ok st e I Hr) as Ok.
        split; [apply ref_ok_widen; exact Ok | intros a; apply (cbfun_of_widen _ _ _ _ _ H Ok)].
      * discriminate.
    + simpl. auto.
  - (* HSetVarOrder *)
    destruct Pre as [Hnd Hr].
    assert (Hsame : hframe_c st (HSetVarOrder order) st).
    { split; [intros; reflexivity|]. split; [|discriminate].
      intros r Hrr. split; [apply (croot_ok st r I Hrr) | reflexivity]. }
    destruct (Nat.leb (length order) 1) eqn:Elen.
    { exists st. split; [reflexivity|]. split; [exact I|]. split; [exact Hsame|]. simpl.
      split; [reflexivity|]. intros a b Hab. apply Nat.leb_le in Elen. lia. }
    rewrite (proj2 (order_ok_b_valid _ order) (conj Hnd Hr)).
    destruct (nat_list_eqb _ (seq 0 (nlevels (hc_s C st)))) eqn:Esorted.
    { exists st. split; [reflexivity|]. split; [exact I|]. split; [exact Hsame|]. simpl.
      split; [reflexivity|]. apply nat_list_eqb_eq in Esorted.
      apply (sorted_respects _ order H Hnd Hr Esorted). }
    pose proof (with_roots_c_ok st I) as B1.
    destruct (retable_c_ok st (HSetVarOrder order) _ I (reorder_c_bcok _ order B1 Hnd Hr)
                (reorder_c_nlevels _ order B1 Hnd Hr) (reorder_c_handle_ok _ order B1 Hnd Hr)
                (reorder_c_bfun _ order B1 Hnd Hr)) as [I' F']; [discriminate|].
    eexists. split; [reflexivity|]. split; [exact I'|]. split; [exact F'|].
    split; [apply (reorder_c_nlevels _ order B1 Hnd Hr) | apply (reorder_c_respects _ order B1 Hnd Hr)].
Qed.

End HistC.
