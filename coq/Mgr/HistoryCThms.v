(** * Theorems about ALL histories of the BCDD manager state machine (Mgr/HistoryC.v)

    The complement-edge counterpart of Mgr/HistoryThms.v, statement by
    statement.  For every configuration (edge order [lt], cache
    implementation [C]/[cget]/[cadd] that is [lossyC], its cleared state
    [cempty]), every number [n] of initial variables and every history (list
    of [hop]) of well-formed requests from the empty manager [hinit_c n]:

    - [hrun_c_ok], [hreach_c_inv]: the run never gets stuck and every state it
      passes satisfies [HInvC];
    - [histc_wf]: the table after ANY history passes the checkers [wf_b] and
      [bcok_b] (C03);
    - [histc_canonical]: two slots hold the same EDGE (reference and
      complement tag) IFF they denote the same function of the variables (C01);
    - [histc_frame_slots], [histc_add_vars]: a call changes neither the edge
      nor the function of any slot other than its destination; after
      [add_vars] the old functions ignore the new variables (C16);
      [histc_reorder_keeps]: the same for [set_var_order] (C08). *)

From Coq Require Import List NArith PArith Bool Arith Lia FMapPositive.
From OxiVerif Require Import DD.Table DD.TableProofs DD.Canon DD.CanonBcdd DD.Sem DD.Build DD.BuildProofs
  DD.Apply DD.ApplyProofs DD.ApplyEvalProofs DD.ConfigApply DD.ConfigRun
  DD.ApplyBcdd DD.ApplyBcddProofs DD.ApplyBcddEval
  DD.Quant DD.QuantSpecProofs DD.QuantLemmas DD.QuantTopProofs DD.QuantBcdd DD.QuantBcddLemmas DD.QuantBcddTop
  Mgr.SortOrder Mgr.SortOrderProofs Mgr.LevelSwap Mgr.LevelSwapC
  Mgr.History Mgr.HistoryBase Mgr.HistoryProofs Mgr.HistoryThms
  Mgr.HistoryC Mgr.HistoryCBase Mgr.HistoryCProofs.
Import ListNotations.

Local Arguments hset : simpl never.
Local Arguments hget : simpl never.
Local Arguments hdel : simpl never.
Local Arguments cbfun_of : simpl never.

(** ** The empty manager *)

Lemma empty_wf_c : forall n, WF (empty_snap_c n).
Proof. intros n. apply empty_wf_gen; repeat constructor; simpl; intuition discriminate. Qed.

Lemma empty_bcok : forall n, BcOK (empty_snap_c n).
Proof. intros n. constructor; [apply empty_wf_c | reflexivity | reflexivity]. Qed.

Section ThmsC.
Variable lt : edge -> edge -> bool.
Variable C : Type.
Variable cget : C -> N -> list edge -> option edge.
Variable cadd : C -> N -> list edge -> edge -> C.
Hypothesis Hlossy : lossyC cget cadd.
Variable cempty : C.
Hypothesis Hempty : forall k a, cget cempty k a = None.

Notation hstate_c := (hstate_c C).
Notation hstep_c := (hstep_c lt C cget cadd cempty).
Notation hrun_c := (hrun_c lt C cget cadd cempty).
Notation HInvC := (HInvC C cget).
Notation hop_pre_c := (hop_pre_c C).
Notation hframe_c := (hframe_c C).
Notation hpost_c := (hpost_c C).
Notation holds_c := (holds_c C).
Notation hinit_c := (hinit_c C cempty).
Notation step_ok := (hstep_c_ok lt C cget cadd Hlossy cempty Hempty).

(** the invariant, spelled out *)
Theorem hinvc_unfold : forall st : hstate_c,
  HInvC st <->
  (BcOK (hc_s C st) /\
   QCacheOKC cget (creg_fn (hc_reg C st)) (hc_s C st) (hc_c C st) /\
   (forall id pairs, In (id, pairs) (hc_reg C st) ->
      NoDup (map fst pairs) /\
      forall v e, In (v, e) pairs -> v < nlevels (hc_s C st) /\ ref_ok (hc_s C st) (eref e)) /\
   (forall id pairs, In (id, pairs) (hc_reg C st) -> (id < hc_next C st)%N)).
Proof.
  intros st. split.
  - intros [A B D F]. auto.
  - intros [A [B [D F]]]. constructor; assumption.
Qed.

Theorem hinit_c_inv : forall n, HInvC (hinit_c n).
Proof.
  intros n. constructor; simpl.
  - apply empty_bcok.
  - apply (qokc_empty C cget cempty Hempty []).
  - intros id pairs [].
  - intros id pairs [].
Qed.

(** ** Runs *)

(** every request is well-formed when it is its turn *)
Fixpoint hops_pre_c (st : hstate_c) (ops : list hop) : Prop :=
  match ops with
  | [] => True
  | o :: rest => hop_pre_c st o /\ forall st1, hstep_c st o = Some st1 -> hops_pre_c st1 rest
  end.

Lemma hstep_c_inv : forall st o, HInvC st -> hop_pre_c st o -> exists st', hstep_c st o = Some st' /\ HInvC st'.
Proof. intros st o I0 P. destruct (step_ok st o I0 P) as [st' [E [I' _]]]. exists st'. auto. Qed.

Theorem hrun_c_ok : forall ops st, HInvC st -> hops_pre_c st ops ->
  exists st', hrun_c st ops = Some st' /\ HInvC st'.
Proof. exact (run_ok _ _ hstep_c HInvC hop_pre_c hstep_c_inv). Qed.

(** the states a client can bring a manager with [n] initial variables into *)
Definition hreach_c (n : nat) (st : hstate_c) : Prop :=
  exists ops, hops_pre_c (hinit_c n) ops /\ hrun_c (hinit_c n) ops = Some st.

Theorem hreach_c_init : forall n, hreach_c n (hinit_c n).
Proof. intros n. exists []. split; [exact I | reflexivity]. Qed.

Theorem hreach_c_inv : forall n st, hreach_c n st -> HInvC st.
Proof. intros n st. exact (reach_inv _ _ hstep_c HInvC hop_pre_c hstep_c_inv (hinit_c n) st (hinit_c_inv n)). Qed.

Theorem hreach_c_step : forall n st o st', hreach_c n st -> hop_pre_c st o -> hstep_c st o = Some st' ->
  hreach_c n st'.
Proof. intros n. exact (reach_step _ _ hstep_c hop_pre_c (hinit_c n)). Qed.

(** (1) no well-formed request ever gets stuck, from any reachable state *)
Theorem histc_progress : forall n st o, hreach_c n st -> hop_pre_c st o ->
  exists st', hstep_c st o = Some st' /\ hreach_c n st' /\ hframe_c st o st' /\ hpost_c st o st'.
Proof.
  intros n st o R Pre. destruct (step_ok st o (hreach_c_inv n st R) Pre) as [st' [E [_ [F P]]]].
  exists st'. split; [exact E|]. split; [apply (hreach_c_step n st o st' R Pre E)|]. auto.
Qed.

(** (1) C03: after any history the table passes the structural checker *)
Theorem histc_wf : forall n st, hreach_c n st ->
  wf_b (hc_s C st) = true /\ bcok_b (hc_s C st) = true.
Proof.
  intros n st R. pose proof (hic_bc C cget st (hreach_c_inv n st R)) as B.
  split; [apply wf_b_spec; apply (bc_wf _ B) | apply bcok_b_spec; exact B].
Qed.

(** ** Canonicity *)

Theorem hinvc_canonical : forall st, HInvC st ->
  forall x y ex ey, hget (s_handles (hc_s C st)) x = Some ex -> hget (s_handles (hc_s C st)) y = Some ey ->
  (ex = ey <-> forall a, cbfun_of (hc_s C st) ex a = cbfun_of (hc_s C st) ey a).
Proof.
  intros st I x y ex ey Ex Ey. pose proof (hic_bc C cget st I) as B.
  pose proof (bc_handle_ok _ (x, ex) B (hget_In _ _ _ Ex)) as Ox.
  pose proof (bc_handle_ok _ (y, ey) B (hget_In _ _ _ Ey)) as Oy. simpl in *.
  split; [intros ->; reflexivity|]. intros Heq.
  destruct (denc_exists _ ex B Ox) as [phi Dx].
  apply (denc_canon _ ex ey phi B Dx). apply (cbfun_eq_denc _ ex ey phi B Dx Oy Heq).
Qed.

(** (2) C01: after any history, two slots hold the same edge (same node AND
    same complement tag) iff they denote the same function of the manager's
    variables *)
Theorem histc_canonical : forall n st, hreach_c n st ->
  forall x y ex ey, hget (s_handles (hc_s C st)) x = Some ex -> hget (s_handles (hc_s C st)) y = Some ey ->
  (ex = ey <-> forall a, cbfun_of (hc_s C st) ex a = cbfun_of (hc_s C st) ey a).
Proof. intros n st R. apply hinvc_canonical. apply (hreach_c_inv n st R). Qed.

(** ** The frame, slot by slot *)

(** (3) a call changes neither the edge nor the function of any slot other than its destination *)
Theorem histc_frame_slots : forall st o st', HInvC st -> hop_pre_c st o -> hstep_c st o = Some st' ->
  forall x e, hdst o <> Some x -> hget (s_handles (hc_s C st)) x = Some e ->
  hget (s_handles (hc_s C st')) x = Some e /\
  ref_ok (hc_s C st') (eref e) /\
  forall a, cbfun_of (hc_s C st') e a = cbfun_of (hc_s C st) e a.
Proof.
  intros st o st' I Pre E x e Hx Eg. destruct (step_ok st o I Pre) as [st1 [E1 [_ [[F1 [F2 _]] _]]]].
  rewrite E in E1. inversion E1; subst st1. split; [rewrite (F1 x Hx); exact Eg|].
  apply F2. left. exists (x, e). split; [apply hget_In; exact Eg | reflexivity].
Qed.

(** (3) along a whole history: as long as no call names slot [x] as its
    destination, the slot keeps its edge, and the edge keeps its function of
    the variables - through operations, collections, reorderings, added
    variables, with any cache behaviour *)
Theorem histc_slot_stable : forall ops st st', HInvC st -> hops_pre_c st ops -> hrun_c st ops = Some st' ->
  forall x e, (forall o, In o ops -> hdst o <> Some x) ->
  hget (s_handles (hc_s C st)) x = Some e ->
  hget (s_handles (hc_s C st')) x = Some e /\
  ref_ok (hc_s C st') (eref e) /\
  forall a, cbfun_of (hc_s C st') e a = cbfun_of (hc_s C st) e a.
Proof.
  induction ops as [|o rest IH]; intros st st' I Pre E x e Hx Eg.
  - simpl in E. inversion E; subst st'. split; [exact Eg|]. split; [|reflexivity].
    apply (bc_handle_ok _ (x, e) (hic_bc C cget st I) (hget_In _ _ _ Eg)).
  - destruct Pre as [P0 Prest]. simpl in E.
    destruct (step_ok st o I P0) as [st1 [E1 [I1 _]]]. rewrite E1 in E.
    destruct (histc_frame_slots st o st1 I P0 E1 x e (Hx o (or_introl eq_refl)) Eg) as [G1 [_ F1]].
    destruct (IH st1 st' I1 (Prest st1 E1) E x e (fun o' Ho => Hx o' (or_intror Ho)) G1) as [G2 [O2 F2]].
    split; [exact G2|]. split; [exact O2|]. intros a. rewrite F2. apply F1.
Qed.

(** the functions inside substitution objects are kept as well *)
Theorem histc_frame_subst : forall st o st', HInvC st -> hop_pre_c st o -> hstep_c st o = Some st' ->
  forall id pairs v e, In (id, pairs) (hc_reg C st) -> In (v, e) pairs ->
  ref_ok (hc_s C st') (eref e) /\ forall a, cbfun_of (hc_s C st') e a = cbfun_of (hc_s C st) e a.
Proof.
  intros st o st' I Pre E id pairs v e Hin Hp. destruct (step_ok st o I Pre) as [st1 [E1 [_ [[_ [F2 _]] _]]]].
  rewrite E in E1. inversion E1; subst st1. apply F2. right. exists id, pairs, v. auto.
Qed.

(** (3) C16 along a whole history: however many variables are added meanwhile
    (and whatever else happens), an existing handle denotes the function it
    denoted, which reads only the variables that existed then *)
Theorem histc_handle_function_fixed : forall ops st st', HInvC st -> hops_pre_c st ops -> hrun_c st ops = Some st' ->
  forall x e, (forall o, In o ops -> hdst o <> Some x) ->
  hget (s_handles (hc_s C st)) x = Some e ->
  hget (s_handles (hc_s C st')) x = Some e /\
  forall a a', (forall v, v < nlevels (hc_s C st) -> a v = a' v) ->
    cbfun_of (hc_s C st') e a = cbfun_of (hc_s C st) e a'.
Proof.
  intros ops st st' I Pre E x e Hx Eg.
  destruct (histc_slot_stable ops st st' I Pre E x e Hx Eg) as [G [_ F]].
  split; [exact G|]. intros a a' Hag. rewrite F.
  apply (cbfun_of_local _ _ a a' (bc_wf _ (hic_bc C cget st I)) Hag).
Qed.

(** (3) C16: [add_vars] changes no node, no slot, and every function of the
    old table is the old function, which ignores the new variables *)
Theorem histc_add_vars : forall st k st', HInvC st -> hstep_c st (HAddVars k) = Some st' ->
  nlevels (hc_s C st') = nlevels (hc_s C st) + k /\
  s_nodes (hc_s C st') = s_nodes (hc_s C st) /\
  s_handles (hc_s C st') = s_handles (hc_s C st) /\
  (forall v, v < nlevels (hc_s C st) -> nth_error (s_v2l (hc_s C st')) v = nth_error (s_v2l (hc_s C st)) v) /\
  (forall i, i < k -> nth_error (s_v2l (hc_s C st')) (nlevels (hc_s C st) + i) = Some (nlevels (hc_s C st) + i)) /\
  forall e, ref_ok (hc_s C st) (eref e) ->
    ref_ok (hc_s C st') (eref e) /\
    forall a a', (forall v, v < nlevels (hc_s C st) -> a v = a' v) ->
      cbfun_of (hc_s C st') e a = cbfun_of (hc_s C st) e a'.
Proof.
  intros st k st' I E. simpl in E. inversion E; subst st'. clear E. simpl.
  pose proof (bc_wf _ (hic_bc C cget st I)) as H.
  assert (Lv : length (s_v2l (hc_s C st)) = nlevels (hc_s C st)) by (apply (wf_perm_len _ H)).
  rewrite widen_add_vars. split; [apply widen_nlevels|]. split; [reflexivity|]. split; [reflexivity|].
  split; [|split].
  - intros v Hv. simpl. apply nth_error_app1. lia.
  - intros i Hi. simpl. rewrite (nth_error_app_seq _ _ k _ Lv).
    destruct (Nat.ltb_spec (nlevels (hc_s C st) + i) (nlevels (hc_s C st))); [lia|].
    destruct (Nat.ltb_spec (nlevels (hc_s C st) + i) (nlevels (hc_s C st) + k)); [reflexivity | lia].
  - intros e Ok. split; [apply ref_ok_widen; exact Ok|]. intros a a' Hag.
    rewrite (cbfun_of_widen _ _ _ e a H Ok). apply (cbfun_of_local _ e a a' H Hag).
Qed.

(** (3) C08: [set_var_order] changes no slot and no function of the variables,
    and establishes the requested relative order *)
Theorem histc_reorder_keeps : forall st order st', HInvC st ->
  hop_pre_c st (HSetVarOrder order) -> hstep_c st (HSetVarOrder order) = Some st' ->
  HInvC st' /\
  nlevels (hc_s C st') = nlevels (hc_s C st) /\
  s_handles (hc_s C st') = s_handles (hc_s C st) /\
  (forall x e, hget (s_handles (hc_s C st)) x = Some e ->
     ref_ok (hc_s C st') (eref e) /\
     forall a, cbfun_of (hc_s C st') e a = cbfun_of (hc_s C st) e a) /\
  (forall a b, a < b < length order ->
     nth (nth a order 0) (s_v2l (hc_s C st')) 0 < nth (nth b order 0) (s_v2l (hc_s C st')) 0).
Proof.
  intros st order st' I Pre E. destruct (step_ok st _ I Pre) as [st1 [E1 [I1 [[_ [F2 _]] P]]]].
  rewrite E in E1. inversion E1; subst st1. simpl in P. destruct P as [P1 P2].
  split; [exact I1|]. split; [exact P1|]. split; [|split; [|exact P2]].
  - simpl in E. destruct (Nat.leb (length order) 1); [inversion E; reflexivity|].
    destruct (order_ok_b _ order); [|discriminate].
    destruct (nat_list_eqb _ _); inversion E; reflexivity.
  - intros x e Eg. apply F2. left. exists (x, e). split; [apply hget_In; exact Eg | reflexivity].
Qed.

(** ** The request checker *)

Lemma occupied_cb_spec : forall st k, occupied_cb C st k = true <-> occupied_c C st k.
Proof.
  intros st k. unfold occupied_cb, occupied_c. destruct (cslot C st k) as [r|].
  - split; [eauto | reflexivity].
  - split; [discriminate | intros [r E]; discriminate].
Qed.

Theorem hop_pre_cb_spec : forall st o, hop_pre_cb C st o = true <-> hop_pre_c st o.
Proof.
  intros st o. pose proof (occupied_cb_spec st) as Ho.
  destruct o; simpl;
    [ split; trivial | apply Nat.ltb_lt | apply Ho | apply andb_iff; apply Ho | apply andb3_iff; apply Ho
    | apply andb_iff; apply Ho | apply andb3_iff; apply Ho | apply andb_iff; apply Ho
    | apply andb_iff; [apply nodup_b_spec|] | apply andb_iff; [apply Ho|]
    | apply Ho | split; trivial | split; trivial | split; trivial | ].
  - (* HNewSubst *)
    rewrite forallb_forall. split.
    + intros B v k Hin. apply (andb_iff _ _ _ _ (Nat.ltb_lt _ _) (Ho k)). apply (B (v, k) Hin).
    + intros B [v k] Hin. apply (andb_iff _ _ _ _ (Nat.ltb_lt _ _) (Ho k)). apply (B v k Hin).
  - (* HSubst *)
    destruct (creg_fn (hc_reg C st) id) as [p|]; split.
    + intros _. exists p. reflexivity.
    + reflexivity.
    + discriminate.
    + intros [p X]. discriminate.
  - (* HSetVarOrder *)
    apply SortOrderProofs.order_ok_b_valid.
Qed.

Theorem hops_pre_cb_spec : forall ops st, hops_pre_cb lt C cget cadd cempty st ops = true -> hops_pre_c st ops.
Proof.
  intros ops st. apply (pres_b_sound _ _ hstep_c (fun _ => True) hop_pre_c (hop_pre_cb C)); [auto | | exact I].
  intros st0 o _. apply hop_pre_cb_spec.
Qed.

(** a history accepted by the checker runs to completion, in a reachable state *)
Theorem hrun_c_checked : forall n ops, hops_pre_cb lt C cget cadd cempty (hinit_c n) ops = true ->
  exists st, hrun_c (hinit_c n) ops = Some st /\ hreach_c n st.
Proof.
  intros n ops Hb.
  exact (run_reach _ _ hstep_c HInvC hop_pre_c hstep_c_inv (hinit_c n) ops (hinit_c_inv n) (hops_pre_cb_spec ops _ Hb)).
Qed.

End ThmsC.
