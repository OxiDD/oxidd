(** * Every branch of [hstep_c] IS the executable model that is compared with the real code

    [hstep_c] (Mgr/HistoryC.v) was written by putting the existing BCDD models
    together.  This file states that composition as equations, so that what
    the correspondence runs establish for the parts carries over.  The
    right-hand sides are exactly the functions extracted for and replayed by
    the drivers:

    - [cmk_const], [cmk_var], [capply_not], [capply_op], [capply_ite]
      (coq/Extract/ExC02b.v, ./check C02 pass 1 on the bcdd cases);
    - [cquant_edge], [capply_quant_edge], [crestrict_edge], [csubstitute_edge]
      (coq/Extract/ExC04.v, ./check C04 pass 1, BCDD engine);
    - [set_var_order_model_c] (coq/Extract/ExDD.v, ./check C08: BCDD
      reorderings replayed swap by swap);
    - [HAddVars] is [add_levels] of DD/ZbddVars.v (./check C09; the map update
      does not depend on the kind); [HGc] yields [collected] of Mgr/OomGc.v
      ([gc_model_collected]; the real rc-based collection: ./check C05 / C14).

    The only glue not covered by one of those runs: reading operands from /
    storing the result into slots ([cslot], [cput]), the registry of
    substitution objects and the choice "cache kept / cache cleared". *)

From Coq Require Import List NArith PArith Bool Arith FMapPositive.
From OxiVerif Require Import DD.Table DD.TableProofs DD.Sem DD.Build DD.Apply DD.ConfigApply DD.Quant DD.ZbddVars
  DD.ApplyBcdd DD.QuantBcdd Mgr.SortOrder Mgr.LevelSwapC Mgr.OomGc Mgr.History Mgr.HistoryGc Mgr.HistoryC.
Import ListNotations.

Local Arguments hget : simpl never.

Section TieC.
Variable lt : edge -> edge -> bool.
Variable C : Type.
Variable cget : C -> N -> list edge -> option edge.
Variable cadd : C -> N -> list edge -> edge -> C.
Variable cempty : C.

Notation hstep_c := (hstep_c lt C cget cadd cempty).

Theorem hstep_c_const : forall st d b,
  hstep_c st (HConst d b) =
  match cmk_const (hc_s C st) b with
  | Some r => cfinish C st d (Some (hc_s C st, hc_c C st, r))
  | None => None
  end.
Proof. intros st d b. simpl. destruct (cmk_const (hc_s C st) b); reflexivity. Qed.

Theorem hstep_c_var : forall st d v neg,
  hstep_c st (HVar d v neg) =
  match cmk_var (hc_s C st) v neg with
  | Some (s', r) => cfinish C st d (Some (s', hc_c C st, r))
  | None => None
  end.
Proof. intros st d v neg. simpl. destruct (cmk_var (hc_s C st) v neg) as [[s' r]|]; reflexivity. Qed.

Theorem hstep_c_not : forall st d a f, cslot C st a = Some f ->
  hstep_c st (HNot d a) = cfinish C st d (capply_not C (hc_s C st) (hc_c C st) f).
Proof. intros st d a f Ef. cbn [HistoryC.hstep_c]. rewrite Ef. reflexivity. Qed.

Theorem hstep_c_bin : forall st op d a b f g, cslot C st a = Some f -> cslot C st b = Some g ->
  hstep_c st (HBin op d a b) =
  cfinish C st d (capply_op lt C cget cadd (S (nlevels (hc_s C st))) (hc_s C st) (hc_c C st) op f g).
Proof. intros st op d a b f g Ef Eg. cbn [HistoryC.hstep_c]. rewrite Ef, Eg. reflexivity. Qed.

Theorem hstep_c_ite : forall st d a b c f g h,
  cslot C st a = Some f -> cslot C st b = Some g -> cslot C st c = Some h ->
  hstep_c st (HIte d a b c) =
  cfinish C st d (capply_ite lt C cget cadd (S (nlevels (hc_s C st))) (hc_s C st) (hc_c C st) f g h).
Proof. intros st d a b c f g h Ef Eg Eh. cbn [HistoryC.hstep_c]. rewrite Ef, Eg, Eh. reflexivity. Qed.

Theorem hstep_c_quant : forall st q d a vars f V, cslot C st a = Some f -> cslot C st vars = Some V ->
  hstep_c st (HQuant q d a vars) = cfinish C st d (cquant_edge lt C cget cadd (hc_s C st) (hc_c C st) q f V).
Proof. intros st q d a vars f V Ef Ev. simpl. rewrite Ef, Ev. reflexivity. Qed.

Theorem hstep_c_apply_quant : forall st q op d a b vars f g V,
  cslot C st a = Some f -> cslot C st b = Some g -> cslot C st vars = Some V ->
  hstep_c st (HApplyQuant q op d a b vars) =
  cfinish C st d (capply_quant_edge lt C cget cadd (hc_s C st) (hc_c C st) q op f g V).
Proof. intros st q op d a b vars f g V Ef Eg Ev. simpl. rewrite Ef, Eg, Ev. reflexivity. Qed.

Theorem hstep_c_restrict : forall st d a cube f V, cslot C st a = Some f -> cslot C st cube = Some V ->
  hstep_c st (HRestrict d a cube) = cfinish C st d (crestrict_edge C cget cadd (hc_s C st) (hc_c C st) f V).
Proof. intros st d a cube f V Ef Ev. simpl. rewrite Ef, Ev. reflexivity. Qed.

Theorem hstep_c_subst : forall st d a id f rp, cslot C st a = Some f -> creg_fn (hc_reg C st) id = Some rp ->
  hstep_c st (HSubst d a id) =
  cfinish C st d (csubstitute_edge lt C cget cadd (hc_s C st) (hc_c C st) f rp id).
Proof. intros st d a id f rp Ef Er. simpl. rewrite Ef, Er. reflexivity. Qed.

(** [set_var_order]: whenever the code gets as far as [manager.reorder] the new
    table is [set_var_order_model_c] of the table with all roots, the slots
    are put back and the cache is cleared *)
Theorem hstep_c_reorder : forall st order,
  Nat.leb (length order) 1 = false -> order_ok_b (nlevels (hc_s C st)) order = true ->
  nat_list_eqb (sort_order (nlevels (hc_s C st)) (map (fun v => nth v (s_v2l (hc_s C st)) 0) order))
               (seq 0 (nlevels (hc_s C st))) = false ->
  hstep_c st (HSetVarOrder order) =
  Some (mkHC C (set_handles (set_var_order_model_c (with_roots_c C st) order) (s_handles (hc_s C st)))
             cempty (hc_reg C st) (hc_next C st)).
Proof. intros st order E1 E2 E3. simpl. rewrite E1, E2, E3. reflexivity. Qed.

Theorem hstep_c_add_vars : forall st k,
  hstep_c st (HAddVars k) = Some (mkHC C (add_levels (hc_s C st) k) (hc_c C st) (hc_reg C st) (hc_next C st)).
Proof. reflexivity. Qed.

(** [gc]: the new table is the collection (Mgr/OomGc.v) of the table with all roots *)
Theorem hstep_c_gc : forall st, WF (with_roots_c C st) ->
  exists sg, collected (with_roots_c C st) sg /\
    hstep_c st HGc = Some (mkHC C (set_handles sg (s_handles (hc_s C st))) cempty (hc_reg C st) (hc_next C st)).
Proof.
  intros st H. exists (gc_model (with_roots_c C st)). split; [apply gc_model_collected; exact H | reflexivity].
Qed.

End TieC.
