(** * A concrete history through every kind of call, and the theorems instantiated on it

    [ex_ops]: 23 calls on a manager with 3 variables covering all 15
    constructors of [hop] (with a substitution object that is used again after
    a collection and a reordering, and a variable added late), run with an
    unbounded cache and operand order "always swap".
    [ex_fresh]: a fresh manager with 4 variables that is only brought into the
    same variable order and builds the two operands, run WITHOUT cache and
    with operand order "never swap".
    Everything here is computed by [vm_compute] on the executable model; the
    theorems of Mgr/HistoryThms.v / HistorySpec.v are then applied to the
    computed states (their hypotheses are satisfiable, their conclusions are
    about non-trivial tables). *)

From Coq Require Import List NArith PArith Bool Arith Lia FMapPositive.
From OxiVerif Require Import DD.Table DD.TableProofs DD.Sem DD.Build DD.Apply DD.ApplyProofs
  DD.ApplyEvalProofs DD.ConfigApply DD.Quant DD.QuantSpecProofs DD.QuantTopProofs
  Mgr.History Mgr.HistoryBase Mgr.HistoryProofs Mgr.HistoryThms Mgr.HistorySpec.
Import ListNotations.
Local Open Scope N_scope.

(** ** Deciding equality of two diagram functions by enumeration *)

Fixpoint all_asgs (n : nat) : list asg :=
  match n with
  | O => [fun _ => false]
  | S k => flat_map (fun a => [Sem.upd a k true; Sem.upd a k false]) (all_asgs k)
  end.

Lemma all_asgs_cover : forall n (a : asg), exists a', In a' (all_asgs n) /\ forall v, (v < n)%nat -> a v = a' v.
Proof.
  induction n as [|k IH]; intros a.
  - exists (fun _ => false). split; [left; reflexivity | intros v Hv; lia].
  - destruct (IH a) as [a' [Hin Hag]]. exists (Sem.upd a' k (a k)). split.
    + simpl. apply in_flat_map. exists a'. split; [exact Hin|]. destruct (a k); simpl; auto.
    + intros v Hv. unfold Sem.upd. destruct (Nat.eqb_spec v k) as [->|Hne]; [reflexivity|].
      apply Hag. lia.
Qed.

Definition bfun_eqb (n : nat) (f g : bfun) : bool :=
  forallb (fun a => Bool.eqb (f a) (g a)) (all_asgs n).

Lemma bfun_eq_enum : forall s1 s2 r1 r2 n, WF s1 -> WF s2 -> nlevels s1 = n -> nlevels s2 = n ->
  bfun_eqb n (bfun_of s1 r1) (bfun_of s2 r2) = true ->
  forall a, bfun_of s1 r1 a = bfun_of s2 r2 a.
Proof.
  intros s1 s2 r1 r2 n H1 H2 N1 N2 Hb a. destruct (all_asgs_cover n a) as [a' [Hin Hag]].
  unfold bfun_eqb in Hb. rewrite forallb_forall in Hb. specialize (Hb a' Hin). apply eqb_prop in Hb.
  rewrite (bfun_of_local s1 r1 a a' H1) by (rewrite N1; exact Hag).
  rewrite (bfun_of_local s2 r2 a a' H2) by (rewrite N2; exact Hag). exact Hb.
Qed.

(** ** Configuration A: unbounded cache, operands always swapped *)

Definition gtA : ref -> ref -> bool := fun _ _ => true.
Notation stepA := (hstep gtA acache ac_get ac_add []).
Notation runA := (hrun gtA acache ac_get ac_add []).
Lemma emptyA : forall k a, ac_get [] k a = None.
Proof. reflexivity. Qed.

(** ** Configuration B: no cache, operands never swapped *)

Definition gtB : ref -> ref -> bool := fun _ _ => false.
Notation stepB := (hstep gtB unit nc_get nc_add tt).
Notation runB := (hrun gtB unit nc_get nc_add tt).
Lemma emptyB : forall k a, nc_get tt k a = None.
Proof. reflexivity. Qed.

(** ** The long history *)

Definition ex_ops : list hop :=
  [ HVar 0 0 false;                       (* x0 *)
    HVar 1 1 false;                       (* x1 *)
    HVar 2 2 false;                       (* x2 *)
    HConst 3 true;
    HBin OAnd 4 0 1;                      (* x0 /\ x1 *)
    HBin OOr 5 4 2;                       (* x0 /\ x1 \/ x2 *)
    HNot 6 5;
    HIte 7 0 1 2;                         (* if x0 then x1 else x2 *)
    HQuant QExists 8 5 1;                 (* exists x1 *)
    HApplyQuant QForall OOr 9 0 2 1;      (* forall x1. x0 \/ x2 *)
    HVar 11 2 true;                       (* ~x2 *)
    HBin OAnd 10 0 11;                    (* the cube x0 /\ ~x2 *)
    HRestrict 12 5 10;
    HNewSubst [(0%nat, 1); (1%nat, 2)];   (* x0 := x1, x1 := x2; id 0 *)
    HSubst 13 5 0;
    HClone 14 5;
    HDrop 6;
    HGc;
    HSetVarOrder [2%nat; 0%nat; 1%nat];
    HAddVars 1;
    HVar 15 3 false;                      (* the new variable *)
    HBin OXor 16 5 15;
    HSubst 17 7 0;                        (* the old substitution object, after gc + reordering *)
    HGc ].

Definition ex_stA : hstate acache :=
  match runA (hinit acache [] 3) ex_ops with Some st => st | None => hinit acache [] 0 end.

Lemma ex_preA : hops_pre_b gtA acache ac_get ac_add [] (hinit acache [] 3) ex_ops = true.
Proof. vm_compute. reflexivity. Qed.

(** by [hrun_checked], without evaluating the run *)
Lemma ex_runA : runA (hinit acache [] 3) ex_ops = Some ex_stA.
Proof.
  destruct (hrun_checked gtA acache ac_get ac_add ac_lossy [] emptyA 3 ex_ops ex_preA) as [st [E _]].
  unfold ex_stA. rewrite E. reflexivity.
Qed.

(** the final state as a value: the facts below are read off it, so that checking
    them does not run the history again each time *)
Definition ex_valA : hstate acache := Eval vm_compute in ex_stA.
Lemma ex_stA_val : ex_stA = ex_valA.
Proof. vm_compute. reflexivity. Qed.

(** every constructor occurs *)
Definition hop_tag (o : hop) : nat :=
  match o with
  | HConst _ _ => 0 | HVar _ _ _ => 1 | HNot _ _ => 2 | HBin _ _ _ _ => 3 | HIte _ _ _ _ => 4
  | HQuant _ _ _ _ => 5 | HApplyQuant _ _ _ _ _ _ => 6 | HRestrict _ _ _ => 7 | HNewSubst _ => 8
  | HSubst _ _ _ => 9 | HClone _ _ => 10 | HDrop _ => 11 | HGc => 12 | HAddVars _ => 13
  | HSetVarOrder _ => 14
  end%nat.

Lemma ex_ops_cover : forallb (fun t => existsb (fun o => Nat.eqb (hop_tag o) t) ex_ops) (seq 0 15) = true
                     /\ length ex_ops = 24%nat.
Proof. vm_compute. auto. Qed.

(** the run is not trivial: nodes were created, removed and reordered *)
Lemma ex_stA_shape :
  PositiveMap.cardinal (s_nodes (h_s acache ex_stA)) = 15%nat /\
  s_l2v (h_s acache ex_stA) = [2; 0; 1; 3]%nat /\
  s_v2l (h_s acache ex_stA) = [1; 2; 0; 3]%nat /\
  length (s_handles (h_s acache ex_stA)) = 17%nat /\
  h_next acache ex_stA = 1 /\
  wf_b (h_s acache ex_stA) = true.
Proof. rewrite ex_stA_val. vm_compute. repeat split; reflexivity. Qed.

Theorem ex_reachA : hreach gtA acache ac_get ac_add [] 3 ex_stA.
Proof.
  exists ex_ops. split; [|exact ex_runA].
  apply (hops_pre_b_spec gtA acache ac_get ac_add []). exact ex_preA.
Qed.

Theorem ex_invA : HInv acache ac_get ex_stA.
Proof. apply (hreach_inv gtA acache ac_get ac_add ac_lossy [] emptyA 3). exact ex_reachA. Qed.

(** the theorems, instantiated *)
Theorem ex_wfA : wf_b (h_s acache ex_stA) = true /\ bdd_ok_b (h_s acache ex_stA) = true.
Proof. apply (hist_wf gtA acache ac_get ac_add ac_lossy [] emptyA 3). exact ex_reachA. Qed.

(** slots 5 and 14 (a clone) hold the same edge; slots 5 and 7 hold different
    edges, hence (canonicity) different functions *)
Theorem ex_canonA :
  hget (s_handles (h_s acache ex_stA)) 5 = hget (s_handles (h_s acache ex_stA)) 14 /\
  forall e5 e7, hget (s_handles (h_s acache ex_stA)) 5 = Some e5 ->
                hget (s_handles (h_s acache ex_stA)) 7 = Some e7 ->
    ~ (forall a, bfun_of (h_s acache ex_stA) (eref e5) a = bfun_of (h_s acache ex_stA) (eref e7) a).
Proof.
  (* the [let] makes this one evaluation of the run instead of four *)
  assert (Hs : let hs := s_handles (h_s acache ex_stA) in hget hs 5 = hget hs 14 /\ hget hs 5 <> hget hs 7).
  { rewrite ex_stA_val. vm_compute. split; discriminate || reflexivity. }
  destruct Hs as [A Y]. split; [exact A|].
  intros e5 e7 E5 E7 Heq. apply Y. rewrite E5, E7. f_equal.
  apply (proj2 (hist_canonical gtA acache ac_get ac_add ac_lossy [] emptyA 3 ex_stA ex_reachA 5 7 e5 e7 E5 E7)).
  exact Heq.
Qed.

(** ** The fresh manager *)

Definition ex_fresh : list hop :=
  [ HSetVarOrder [2%nat; 0%nat; 1%nat];
    HVar 0 0 false; HVar 1 1 false; HVar 2 2 false;
    HBin OAnd 3 0 1;
    HBin OOr 4 3 2;                       (* x0 /\ x1 \/ x2 *)
    HIte 5 0 1 2 ].                       (* if x0 then x1 else x2 *)

Definition ex_stB : hstate unit :=
  match runB (hinit unit tt 4) ex_fresh with Some st => st | None => hinit unit tt 0 end.

Lemma ex_preB : hops_pre_b gtB unit nc_get nc_add tt (hinit unit tt 4) ex_fresh = true.
Proof. vm_compute. reflexivity. Qed.

Lemma ex_runB : runB (hinit unit tt 4) ex_fresh = Some ex_stB.
Proof.
  destruct (hrun_checked gtB unit nc_get nc_add nc_lossy tt emptyB 4 ex_fresh ex_preB) as [st [E _]].
  unfold ex_stB. rewrite E. reflexivity.
Qed.

Theorem ex_reachB : hreach gtB unit nc_get nc_add tt 4 ex_stB.
Proof.
  exists ex_fresh. split; [|exact ex_runB].
  apply (hops_pre_b_spec gtB unit nc_get nc_add tt). exact ex_preB.
Qed.

Lemma ex_same_order :
  s_l2v (h_s acache ex_stA) = s_l2v (h_s unit ex_stB) /\ s_v2l (h_s acache ex_stA) = s_v2l (h_s unit ex_stB).
Proof. destruct ex_stA_shape as [_ [L [V _]]]. rewrite L, V. vm_compute. split; reflexivity. Qed.

(** the operands in the two managers *)
Definition slot_ref (C : Type) (st : hstate C) (k : N) : ref :=
  match hslot C st k with Some r => r | None => RT 0 end.

(** for a list of slots: one evaluation of the state serves all of them *)
Lemma slot_ref_some : forall C (st : hstate C) ks, forallb (occupied_b C st) ks = true ->
  forall k, In k ks -> hslot C st k = Some (slot_ref C st k).
Proof.
  intros C st ks Hb k Hk. rewrite forallb_forall in Hb. specialize (Hb k Hk).
  unfold occupied_b, slot_ref in *. destruct (hslot C st k); [reflexivity | discriminate].
Qed.

Lemma ex_slotsA : forall k, In k [1; 5; 7; 10] -> hslot acache ex_stA k = Some (slot_ref acache ex_stA k).
Proof. apply slot_ref_some. rewrite ex_stA_val. vm_compute. reflexivity. Qed.

Lemma ex_slotsB : forall k, In k [4; 5] -> hslot unit ex_stB k = Some (slot_ref unit ex_stB k).
Proof. apply slot_ref_some. vm_compute. reflexivity. Qed.

Definition fA5 : bfun := bfun_of (h_s acache ex_stA) (slot_ref acache ex_stA 5).
Definition fA7 : bfun := bfun_of (h_s acache ex_stA) (slot_ref acache ex_stA 7).

Lemma ex_holdsA5 : holds acache ex_stA 5 fA5.
Proof. exists (slot_ref acache ex_stA 5). split; [apply ex_slotsA; simpl; auto | intros a; unfold fA5; reflexivity]. Qed.
Lemma ex_holdsA7 : holds acache ex_stA 7 fA7.
Proof. exists (slot_ref acache ex_stA 7). split; [apply ex_slotsA; simpl; auto | intros a; unfold fA7; reflexivity]. Qed.

Lemma ex_wfB : WF (h_s unit ex_stB).
Proof.
  apply bo_wf, (hi_bdd unit nc_get), (hreach_inv gtB unit nc_get nc_add nc_lossy tt emptyB 4), ex_reachB.
Qed.

Lemma ex_WFA : WF (h_s acache ex_stA).
Proof. apply bo_wf, (hi_bdd acache ac_get), ex_invA. Qed.

Lemma ex_nA : nlevels (h_s acache ex_stA) = 4%nat.
Proof. unfold nlevels. rewrite (proj1 (proj2 ex_stA_shape)). reflexivity. Qed.
Lemma ex_nB : nlevels (h_s unit ex_stB) = 4%nat.
Proof. vm_compute. reflexivity. Qed.

(** the [let]s make it one evaluation of each state for the four comparisons *)
Lemma ex_enums : let stA := ex_stA in let stB := ex_stB in
  bfun_eqb 4 (bfun_of (h_s unit stB) (slot_ref unit stB 4)) (bfun_of (h_s acache stA) (slot_ref acache stA 5)) = true /\
  bfun_eqb 4 (bfun_of (h_s unit stB) (slot_ref unit stB 5)) (bfun_of (h_s acache stA) (slot_ref acache stA 7)) = true /\
  bfun_eqb 4 (bfun_of (h_s acache stA) (slot_ref acache stA 1)) (conj_vars [1%nat]) = true /\
  bfun_eqb 4 (bfun_of (h_s acache stA) (slot_ref acache stA 10)) (cube_fun [(0%nat, true); (2%nat, false)]) = true.
Proof. rewrite ex_stA_val. vm_compute. repeat split; reflexivity. Qed.


(** slot 4 / slot 5 of the fresh manager hold the same functions as slot 5 /
    slot 7 of the long-lived one (decided over all 16 assignments) *)
Lemma ex_holdsB4 : holds unit ex_stB 4 fA5.
Proof.
  exists (slot_ref unit ex_stB 4). split; [apply ex_slotsB; simpl; auto|].
  exact (bfun_eq_enum (h_s unit ex_stB) (h_s acache ex_stA) (slot_ref unit ex_stB 4) (slot_ref acache ex_stA 5)
                      4%nat ex_wfB ex_WFA ex_nB ex_nA (proj1 ex_enums)).
Qed.
Lemma ex_holdsB5 : holds unit ex_stB 5 fA7.
Proof.
  exists (slot_ref unit ex_stB 5). split; [apply ex_slotsB; simpl; auto|].
  exact (bfun_eq_enum (h_s unit ex_stB) (h_s acache ex_stA) (slot_ref unit ex_stB 5) (slot_ref acache ex_stA 7)
                      4%nat ex_wfB ex_WFA ex_nB ex_nA (proj1 (proj2 ex_enums))).
Qed.

(** C08 / C01: the conjunction computed in the long-lived manager (after 24
    calls, two collections, a reordering, an added variable; cache, swapped
    operands) and in the fresh one (no cache) denote the same function and
    have the same number of nodes *)
Theorem ex_fresh_equiv :
  exists stA' stB' r1 r2,
    stepA ex_stA (HBin OAnd 20 5 7) = Some stA' /\ stepB ex_stB (HBin OAnd 6 4 5) = Some stB' /\
    hslot acache stA' 20 = Some r1 /\ hslot unit stB' 6 = Some r2 /\
    (forall a, bfun_of (h_s acache stA') r1 a = lift2 OAnd fA5 fA7 a) /\
    (forall a, bfun_of (h_s unit stB') r2 a = lift2 OAnd fA5 fA7 a) /\
    count_reach (h_s acache stA') (E r1) = count_reach (h_s unit stB') (E r2) /\
    wf_b (h_s acache stA') = true /\ wf_b (h_s unit stB') = true.
Proof.
  apply (hist_fresh_equiv gtA gtB acache unit ac_get ac_add nc_get nc_add ac_lossy nc_lossy [] tt emptyA emptyB
           3 4 ex_ops ex_fresh ex_stA ex_stB).
  - apply (hops_pre_b_spec gtA acache ac_get ac_add []). exact ex_preA.
  - exact ex_runA.
  - apply (hops_pre_b_spec gtB unit nc_get nc_add tt). exact ex_preB.
  - exact ex_runB.
  - apply ex_same_order.
  - apply ex_same_order.
  - apply SpBin; [exact ex_holdsA5 | exact ex_holdsA7].
  - apply SpBin; [exact ex_holdsB4 | exact ex_holdsB5].
Qed.

(** what the two results actually are: 6 nodes each (4 inner + 2 terminals), different node ids *)
Lemma ex_fresh_values :
  match stepA ex_stA (HBin OAnd 20 5 7), stepB ex_stB (HBin OAnd 6 4 5) with
  | Some a, Some b =>
    (count_reach (h_s acache a) (E (slot_ref acache a 20)),
     count_reach (h_s unit b) (E (slot_ref unit b 6)),
     ref_eqb (slot_ref acache a 20) (slot_ref unit b 6))
  | _, _ => (0, 0, true)
  end = (6, 6, false).
Proof. vm_compute. reflexivity. Qed.

(** ** The hypotheses of [hspec] for quantification, restriction and substitution are satisfiable *)

Lemma bfun_eq_enum_spec : forall s r n (F : bfun), WF s -> nlevels s = n ->
  (forall a a', (forall v, (v < n)%nat -> a v = a' v) -> F a = F a') ->
  bfun_eqb n (bfun_of s r) F = true -> forall a, bfun_of s r a = F a.
Proof.
  intros s r n F H N Hloc Hb a. destruct (all_asgs_cover n a) as [a' [Hin Hag]].
  unfold bfun_eqb in Hb. rewrite forallb_forall in Hb. specialize (Hb a' Hin). apply eqb_prop in Hb.
  rewrite (bfun_of_local s r a a' H) by (rewrite N; exact Hag). rewrite Hb. symmetry. apply Hloc. exact Hag.
Qed.

Lemma conj_vars_local : forall vs n, (forall v, In v vs -> (v < n)%nat) ->
  forall a a', (forall v, (v < n)%nat -> a v = a' v) -> conj_vars vs a = conj_vars vs a'.
Proof.
  intros vs n Hlt a a' Hag. unfold conj_vars. induction vs as [|v r IH]; [reflexivity|]. simpl.
  rewrite (Hag v (Hlt v (or_introl eq_refl))), IH; [reflexivity|]. intros w Hw. apply Hlt. right. exact Hw.
Qed.

Lemma cube_fun_local : forall lits n, (forall p, In p lits -> (fst p < n)%nat) ->
  forall a a', (forall v, (v < n)%nat -> a v = a' v) -> cube_fun lits a = cube_fun lits a'.
Proof.
  intros lits n Hlt a a' Hag. unfold cube_fun. induction lits as [|p r IH]; [reflexivity|]. simpl.
  rewrite (Hag (fst p) (Hlt p (or_introl eq_refl))), IH; [reflexivity|]. intros w Hw. apply Hlt. right. exact Hw.
Qed.

(** slot 1 holds the variable set {x1}; slot 10 the cube x0 /\ ~x2 *)

Lemma ex_holds_vars : holds acache ex_stA 1 (conj_vars [1%nat]).
Proof.
  exists (slot_ref acache ex_stA 1). split; [apply ex_slotsA; simpl; auto|].
  apply (bfun_eq_enum_spec _ _ 4%nat _ ex_WFA ex_nA); [|exact (proj1 (proj2 (proj2 ex_enums)))].
  apply conj_vars_local. intros v [<-|[]]. lia.
Qed.

Lemma ex_holds_cube : holds acache ex_stA 10 (cube_fun [(0%nat, true); (2%nat, false)]).
Proof.
  exists (slot_ref acache ex_stA 10). split; [apply ex_slotsA; simpl; auto|].
  apply (bfun_eq_enum_spec _ _ 4%nat _ ex_WFA ex_nA); [|exact (proj2 (proj2 (proj2 ex_enums)))].
  apply cube_fun_local. intros p [<-|[<-|[]]]; simpl; lia.
Qed.

(** exists x1. (slot 5) *)
Theorem ex_spec_quant :
  exists st', stepA ex_stA (HQuant QExists 21 5 1) = Some st' /\
              holds acache st' 21 (exists_s [1%nat] fA5).
Proof.
  destruct (hstep_spec gtA acache ac_get ac_add ac_lossy [] emptyA ex_stA _ 21 _ ex_invA
              (SpQuant acache ex_stA QExists 21 5 1 fA5 [1%nat] ex_holdsA5 ex_holds_vars
                 ltac:(intros v [<-|[]]; rewrite ex_nA; lia) ltac:(discriminate)))
    as [st' [E [_ [_ Hd]]]].
  exists st'. split; [exact E | exact Hd].
Qed.

(** (slot 5) restricted to x0 = true, x2 = false *)
Theorem ex_spec_restrict :
  exists st', stepA ex_stA (HRestrict 21 5 10) = Some st' /\
              holds acache st' 21 (restrict_s [(0%nat, true); (2%nat, false)] fA5).
Proof.
  destruct (hstep_spec gtA acache ac_get ac_add ac_lossy [] emptyA ex_stA _ 21 _ ex_invA
              (SpRestrict acache ex_stA 21 5 10 fA5 [(0%nat, true); (2%nat, false)] ex_holdsA5 ex_holds_cube
                 ltac:(repeat constructor; simpl; intuition discriminate)
                 ltac:(intros p [<-|[<-|[]]]; rewrite ex_nA; simpl; lia)))
    as [st' [E [_ [_ Hd]]]].
  exists st'. split; [exact E | exact Hd].
Qed.

(** the substitution object created by call 14, applied once more in the final state *)
Definition ex_rp : hpairs :=
  match hreg_fn (h_reg acache ex_stA) 0 with Some rp => rp | None => [] end.

Lemma ex_reg0 : hreg_fn (h_reg acache ex_stA) 0 = Some ex_rp.
Proof. unfold ex_rp. rewrite ex_stA_val. vm_compute. reflexivity. Qed.

Lemma sub_funs_refl : forall s rp, sub_funs s rp (map (fun p : nat * ref => (fst p, bfun_of s (snd p))) rp).
Proof.
  intros s rp. unfold sub_funs. induction rp as [|p r IH]; simpl; constructor; [|exact IH].
  split; [reflexivity | intros a; reflexivity].
Qed.

Theorem ex_spec_subst :
  exists st', stepA ex_stA (HSubst 21 5 0) = Some st' /\ length ex_rp = 2%nat /\
    holds acache st' 21
      (subst_s (map (fun p : nat * ref => (fst p, bfun_of (h_s acache ex_stA) (snd p))) ex_rp) fA5).
Proof.
  destruct (hstep_spec gtA acache ac_get ac_add ac_lossy [] emptyA ex_stA _ 21 _ ex_invA
              (SpSubst acache ex_stA 21 5 0 fA5 ex_rp _ ex_holdsA5
                 (aext_bfun_of _ ex_WFA _) ex_reg0 (sub_funs_refl _ ex_rp)))
    as [st' [E [_ [_ Hd]]]].
  exists st'. split; [exact E|]. split; [vm_compute; reflexivity | exact Hd].
Qed.
