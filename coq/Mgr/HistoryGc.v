(** * [gc_model] (Mgr/History.v) computes the collection specified in Mgr/OomGc.v

    [gc_model_collected]: on a well-formed table the executable marking
    ([gc_marks]: the handles' nodes, then [nlevels s] rounds of "children of
    marked nodes") marks exactly the stored nodes that are [reachable] from
    the handle list, hence [collected s (gc_model s)]; all consequences
    ([collected_ok]: well-formed, sub-table, every surviving reference means
    what it meant, nothing unreachable is left) apply.

    [collected_wf_gen], [collected_sub_gen]: the part of [collected_ok] that
    holds for [WF] tables of any kind. *)

From Coq Require Import List NArith PArith Bool Arith Lia FMapPositive.
From OxiVerif Require Import DD.Table DD.TableProofs DD.Build DD.BuildProofs DD.Apply DD.ApplyProofs
  Mgr.LevelSwapBase Mgr.OomGc Mgr.History.
Import ListNotations.

Lemma marked_mark_ref : forall m r id,
  marked (mark_ref m r) id = true <-> marked m id = true \/ r = RN id.
Proof.
  intros m [t|x] id; simpl.
  - split; [auto | intros [A|A]; [exact A | discriminate]].
  - unfold marked. rewrite find_add. destruct (Pos.eqb_spec id x) as [->|Hne].
    + split; auto.
    + split; [auto | intros [A|A]; [exact A | inversion A; congruence]].
Qed.

Lemma marked_fold_refs : forall (A : Type) (g : A -> ref) (l : list A) m id,
  marked (fold_left (fun a x => mark_ref a (g x)) l m) id = true <->
  marked m id = true \/ In (RN id) (map g l).
Proof.
  intros A g. induction l as [|x l IH]; intros m id; simpl.
  - split; [auto | intros [H|[]]; exact H].
  - rewrite IH, marked_mark_ref. split.
    + intros [[H|H]|H]; auto.
    + intros [H|[H|H]]; auto.
Qed.

Lemma mark_roots_spec : forall s id,
  marked (mark_roots s) id = true <-> In (RN id) (handle_refs s).
Proof.
  intros s id. unfold mark_roots.
  rewrite (marked_fold_refs _ (fun h : N * edge => eref (snd h))). unfold handle_refs. split.
  - intros [H|H]; [|exact H]. unfold marked in H. rewrite PositiveMap.gempty in H. discriminate.
  - auto.
Qed.

Lemma mark_round_list : forall (l : list (positive * node)) m acc id,
  marked (fold_left (fun acc (p : positive * node) =>
               if marked m (fst p)
               then fold_left (fun a e => mark_ref a (eref e)) (nchildren (snd p)) acc
               else acc) l acc) id = true <->
  marked acc id = true \/
  exists p e, In p l /\ marked m (fst p) = true /\ In e (nchildren (snd p)) /\ eref e = RN id.
Proof.
  induction l as [|p l IH]; intros m acc id; simpl.
  - split; [auto | intros [H|[p [e [[] _]]]]; exact H].
  - rewrite IH. split.
    + intros [H|[q [e [Hq R]]]].
      * destruct (marked m (fst p)) eqn:Em; [|auto].
        apply (marked_fold_refs _ eref) in H. destruct H as [H|H]; [auto|].
        apply in_map_iff in H. destruct H as [e [He1 He2]]. right. exists p, e. auto.
      * right. exists q, e. auto.
    + intros [H|[q [e [[<-|Hq] [Em [He Hr]]]]]].
      * left. destruct (marked m (fst p)); [|exact H].
        apply (marked_fold_refs _ eref). auto.
      * left. rewrite Em. apply (marked_fold_refs _ eref). right. apply in_map_iff. exists e. auto.
      * right. exists q, e. auto.
Qed.

Lemma mark_round_spec : forall s m id,
  marked (mark_round s m) id = true <->
  marked m id = true \/
  exists pid nd e, find_node s pid = Some nd /\ marked m pid = true /\ In e (nchildren nd) /\ eref e = RN id.
Proof.
  intros s m id. unfold mark_round. rewrite mark_round_list. split.
  - intros [H|[[pid nd] [e [Hp [Em [He Hr]]]]]]; [auto|]. right. exists pid, nd, e.
    split; [apply find_node_elements; exact Hp | auto].
  - intros [H|[pid [nd [e [E [Em [He Hr]]]]]]]; [auto|]. right. exists (pid, nd), e.
    split; [apply find_node_elements; exact E | auto].
Qed.

Lemma mark_iter_mono : forall s m k k' id, k <= k' ->
  marked (mark_iter k s m) id = true -> marked (mark_iter k' s m) id = true.
Proof.
  intros s m k k' id Hle. induction Hle as [|k' Hle IH]; [auto|].
  intros H. simpl. apply mark_round_spec. left. apply IH. exact H.
Qed.

(** reachability reads the node map only, not the handle list *)
Lemma reachable_one : forall s s' roots r, (forall id, find_node s id = find_node s' id) ->
  reachable s roots r -> exists r0, In r0 roots /\ reachable s' [r0] r.
Proof.
  intros s s' roots r Hf R. induction R as [r Hin|id nd e R [r0 [Hin R0]] E He].
  - exists r. split; [exact Hin | apply reach_root; left; reflexivity].
  - exists r0. split; [exact Hin|]. rewrite Hf in E. apply (reach_child s' _ id nd e R0 E He).
Qed.

Section Marks.
Variable s : snap.
Hypothesis H : WF s.

Lemma mark_iter_sound : forall k id,
  marked (mark_iter k s (mark_roots s)) id = true -> reachable s (handle_refs s) (RN id).
Proof.
  induction k as [|k IH]; intros id; simpl.
  - intros Hm. apply reach_root. apply mark_roots_spec. exact Hm.
  - intros Hm. apply mark_round_spec in Hm. destruct Hm as [Hm|[pid [nd [e [E [Em [He Hr]]]]]]].
    + apply IH. exact Hm.
    + rewrite <- Hr. apply (reach_child s _ pid nd e (IH pid Em) E He).
Qed.

Lemma mark_iter_complete : forall r, reachable s (handle_refs s) r ->
  forall id nd, r = RN id -> find_node s id = Some nd ->
  marked (mark_iter (nlevel nd) s (mark_roots s)) id = true.
Proof.
  intros r R. induction R as [r Hin|pid pnd e R IH Ep He]; intros id nd Heq E.
  - subst r. apply (mark_iter_mono s _ 0); [lia|]. simpl. apply mark_roots_spec. exact Hin.
  - destruct (wf_child s H pid pnd e Ep He) as [_ Hlt]. rewrite Heq in Hlt.
    rewrite (rlevel_node s id nd E) in Hlt.
    apply (mark_iter_mono s _ (S (nlevel pnd))); [lia|]. simpl. apply mark_round_spec. right.
    exists pid, pnd, e. split; [exact Ep|]. split; [apply (IH pid pnd eq_refl Ep)|]. auto.
Qed.

Lemma gc_marks_spec : forall id nd, find_node s id = Some nd ->
  (marked (gc_marks s) id = true <-> reachable s (handle_refs s) (RN id)).
Proof.
  intros id nd E. unfold gc_marks. split.
  - apply mark_iter_sound.
  - intros R. apply (mark_iter_mono s _ (nlevel nd)); [pose proof (wf_level s H id nd E); lia|].
    apply (mark_iter_complete _ R id nd eq_refl E).
Qed.

Lemma dead_ids_spec : forall m id,
  In id (dead_ids s m) <-> exists nd, find_node s id = Some nd /\ marked m id = false.
Proof.
  intros m id. unfold dead_ids. rewrite in_map_iff. split.
  - intros [[i nd] [<- Hin]]. apply filter_In in Hin. destruct Hin as [Hin Hm]. simpl in *.
    exists nd. split; [apply find_node_elements; exact Hin|]. apply negb_true_iff. exact Hm.
  - intros [nd [E Hm]]. exists (id, nd). split; [reflexivity|]. apply filter_In.
    split; [apply find_node_elements; exact E | simpl; rewrite Hm; reflexivity].
Qed.

Lemma gc_model_find : forall id nd,
  find_node (gc_model s) id = Some nd <->
  (find_node s id = Some nd /\ reachable s (handle_refs s) (RN id)).
Proof.
  intros id nd. unfold gc_model, find_node at 1. simpl. rewrite find_remove_list.
  destruct (existsb (Pos.eqb id) (dead_ids s (gc_marks s))) eqn:X.
  - apply existsb_pos_In in X. apply dead_ids_spec in X. destruct X as [nd' [E Hm]].
    split; [discriminate|]. intros [E' R]. apply (gc_marks_spec id nd' E) in R. congruence.
  - fold (find_node s id). split.
    + intros E. split; [exact E|]. apply (gc_marks_spec id nd E).
      destruct (marked (gc_marks s) id) eqn:Hm; [reflexivity|]. exfalso.
      assert (Hin : In id (dead_ids s (gc_marks s))) by (apply dead_ids_spec; exists nd; auto).
      apply existsb_pos_In in Hin. congruence.
    + intros [E _]. exact E.
Qed.

Theorem gc_model_collected : collected s (gc_model s).
Proof. constructor; try reflexivity. exact gc_model_find. Qed.

End Marks.

(** ** Garbage collection: [collected] on well-formed tables of any kind *)

Section CollectedWF.
Variables s sg : snap.
Hypothesis H : WF s.
Hypothesis Cg : collected s sg.

Lemma cw_old : forall id nd, find_node sg id = Some nd -> find_node s id = Some nd.
Proof. intros id nd E. apply (proj1 (co_nodes s sg Cg id nd) E). Qed.

Lemma cw_nlevels : nlevels sg = nlevels s.
Proof. unfold nlevels. rewrite (co_l2v s sg Cg). reflexivity. Qed.

Lemma cw_term_val : forall t, term_val sg t = term_val s t.
Proof. intros t. unfold term_val. rewrite (co_terms s sg Cg). reflexivity. Qed.

Lemma cw_keeps : forall r, ref_ok s r -> reachable s (handle_refs s) r -> ref_ok sg r.
Proof.
  intros [t|id] Hok R; simpl in *.
  - rewrite cw_term_val. exact Hok.
  - destruct Hok as [nd E]. exists nd. apply (co_nodes s sg Cg). auto.
Qed.

Lemma cw_rlevel : forall r, ref_ok sg r -> rlevel sg r = rlevel s r.
Proof.
  intros [t|id] Hok; simpl.
  - apply cw_nlevels.
  - destruct Hok as [nd E]. rewrite E, (cw_old id nd E). reflexivity.
Qed.

Lemma cw_child : forall id nd e, find_node sg id = Some nd -> In e (nchildren nd) ->
  ref_ok sg (eref e) /\ nlevel nd < rlevel sg (eref e).
Proof.
  intros id nd e E He. destruct (proj1 (co_nodes s sg Cg id nd) E) as [Es R].
  destruct (wf_child s H id nd e Es He) as [Ok Lv].
  assert (Okg : ref_ok sg (eref e)) by (apply cw_keeps; [exact Ok | apply (reach_child s _ id nd e R Es He)]).
  split; [exact Okg | rewrite (cw_rlevel _ Okg); exact Lv].
Qed.

Lemma collected_wf_gen : WF sg.
Proof.
  constructor.
  - rewrite (co_v2l s sg Cg), (co_l2v s sg Cg). apply (wf_perm_len s H).
  - rewrite (co_v2l s sg Cg), (co_l2v s sg Cg). apply (wf_perm_v2l s H).
  - rewrite (co_v2l s sg Cg), (co_l2v s sg Cg). apply (wf_perm_l2v s H).
  - intros id nd E. rewrite (co_kind s sg Cg). apply (wf_arity s H id nd (cw_old id nd E)).
  - intros id nd E. apply (wf_stored s H id nd (cw_old id nd E)).
  - intros id nd E. rewrite cw_nlevels. apply (wf_level s H id nd (cw_old id nd E)).
  - apply cw_child.
  - intros id nd E. pose proof (wf_reduced s H id nd (cw_old id nd E)) as R.
    unfold reduced in *. rewrite (co_kind s sg Cg). destruct (s_kind s); try exact R.
    destruct R as [hi [E1 E2]]. exists hi. split; [exact E1|]. intros t Et. rewrite cw_term_val.
    apply E2. exact Et.
  - intros Hkk id nd e E He. rewrite (co_kind s sg Cg) in Hkk.
    apply (wf_tags s H Hkk id nd e (cw_old id nd E) He).
  - intros i1 i2 n1 n2 E1 E2. apply (wf_unique s H i1 i2 n1 n2 (cw_old _ _ E1) (cw_old _ _ E2)).
  - rewrite (co_terms s sg Cg). apply (wf_term_ids s H).
  - rewrite (co_terms s sg Cg). apply (wf_term_vals s H).
  - intros h Hh. rewrite (co_handles s sg Cg) in Hh. destruct (wf_handles s H h Hh) as [Ok Tg].
    split; [|rewrite (co_kind s sg Cg); exact Tg].
    apply cw_keeps; [exact Ok|]. apply reach_root. unfold handle_refs. apply in_map_iff. exists h. auto.
Qed.

Lemma collected_sub_gen : extends sg s.
Proof. constructor; try (symmetry; apply Cg). exact cw_old. Qed.

End CollectedWF.
