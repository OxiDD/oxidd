(** * Transport lemmas for the MTBDD manager state machine (Mgr/HistoryM.v)

    How the invariants and denotations of the MTBDD package (DD/ApplyMtbdd*.v)
    behave under the state changes that are not "run an algorithm":

    - [widen s k hs] (Mgr/HistoryBase.v: [k] levels appended, handle list
      replaced): [MtOK], [DenM], [mfun_of], [Cube], [MCacheOK] are preserved;
    - [mfun_canon]: two references with the same function of the variables are equal;
    - [gc_terms] / [gc_model_m]: the collected table is [MtOK], a sub-table of
      the old one ([mext]), keeps every handle and its function; a terminal
      survives iff a handle or a surviving node refers to it;
    - [set_var_order_model]: [MtOK] and the functions over variables of all
      handles are preserved (from Mgr/LevelSwapOrder.v). *)

From Coq Require Import List NArith ZArith PArith Bool Arith Lia FMapPositive.
From OxiVerif Require Import Base.ListFacts DD.Table DD.TableProofs DD.Sem DD.Build DD.BuildProofs DD.BuildCanonProofs
  DD.Apply DD.ApplyProofs DD.ApplyEvalProofs DD.ConfigApply DD.ConfigInsert DD.ConfigRun
  Num.I64 Num.I64Proofs DD.ApplyMtbdd DD.ApplyMtbddBase DD.ApplyMtbddProofs DD.ApplyMtbddTop
  Mgr.SortOrder Mgr.LevelSwap Mgr.LevelSwapBase Mgr.LevelSwapProofs Mgr.LevelSwapOrder
  Mgr.OomGc Mgr.History Mgr.HistoryBase Mgr.HistoryGc Mgr.HistoryReorder Mgr.HistoryCBase Mgr.HistoryM.
Import ListNotations.

Local Arguments hset : simpl never.
Local Arguments hget : simpl never.
Local Arguments hdel : simpl never.

(** ** Appending levels / replacing the handle list *)

Lemma term_val_widen : forall s k hs t, term_val (widen s k hs) t = term_val s t.
Proof. reflexivity. Qed.

Lemma mtok_widen : forall s k hs, MtOK s ->
  (forall h, In h hs -> ref_ok s (eref (snd h)) /\ etag (snd h) = false) ->
  MtOK (widen s k hs).
Proof.
  intros s k hs B Hh. constructor.
  - apply wf_widen; [apply (mo_wf s B)|]. intros h Hin. destruct (Hh h Hin). split; auto.
  - exact (mo_kind s B).
  - exact (mo_vals s B).
Qed.

Lemma m_handle_ok : forall s h, MtOK s -> In h (s_handles s) ->
  ref_ok s (eref (snd h)) /\ etag (snd h) = false.
Proof.
  intros s h B Hin. destruct (wf_handles s (mo_wf s B) h Hin) as [A T].
  split; [exact A|]. apply T. rewrite (mo_kind s B). discriminate.
Qed.

Lemma mtok_set_handles : forall s hs, MtOK s ->
  (forall h, In h hs -> ref_ok s (eref (snd h)) /\ etag (snd h) = false) -> MtOK (set_handles s hs).
Proof. intros s hs B Hh. rewrite widen_set_handles. apply mtok_widen; assumption. Qed.

Lemma mtok_put : forall s d r, MtOK s -> ref_ok s r -> MtOK (put s d r).
Proof.
  intros s d r B Hr. apply mtok_set_handles; [exact B|].
  intros h [<-|Hin]; [simpl; auto|]. apply (m_handle_ok s h B). eapply hdel_In_x; eauto.
Qed.

Lemma mtok_drop : forall s d, MtOK s -> MtOK (set_handles s (hdel (s_handles s) d)).
Proof.
  intros s d B. apply mtok_set_handles; [exact B|].
  intros h Hin. apply (m_handle_ok s h B). eapply hdel_In_x; eauto.
Qed.

Lemma denm_widen : forall s k hs r phi, WF s -> DenM s r phi -> DenM (widen s k hs) r phi.
Proof.
  intros s k hs r phi H [A D]. split; [apply ref_ok_widen; exact A|].
  intros c Hc. rewrite semk_widen, widen_nlevels, <- (D c Hc).
  pose proof (rlevel_le s H r). apply (semk_fuel s H); [exact A | lia | lia].
Qed.

(** the function over the VARIABLES: unchanged; it does not read new variables *)
Lemma mfun_of_widen : forall s k hs r a, WF s -> ref_ok s r ->
  mfun_of (widen s k hs) r a = mfun_of s r a.
Proof.
  intros s k hs r a H A. unfold mfun_of, ApplyProofs.FUEL. rewrite semk_widen, widen_nlevels.
  pose proof (rlevel_le s H r).
  rewrite (semk_fuel s H (S (nlevels s + k)) (S (nlevels s)) r _ A) by lia.
  rewrite (BuildCanonProofs.semk_ext_lt s H (S (nlevels s)) r _ (choice_of s a)); [reflexivity|].
  intros l Hl. apply choice_of_widen. exact Hl.
Qed.

Lemma mfun_of_set_handles : forall s hs r a, mfun_of (set_handles s hs) r a = mfun_of s r a.
Proof.
  intros s hs r a. unfold mfun_of.
  change (ApplyProofs.FUEL (set_handles s hs)) with (ApplyProofs.FUEL s).
  change (choice_of (set_handles s hs) a) with (choice_of s a).
  rewrite ConfigRun.semk_set_handles. reflexivity.
Qed.

(** an old reference means in a table with more nodes and terminals what it meant *)
Lemma mfun_of_mext : forall s s' r a, WF s -> mext s s' -> ref_ok s r ->
  mfun_of s' r a = mfun_of s r a.
Proof.
  intros s s' r a H X A. unfold mfun_of, ApplyProofs.FUEL, choice_of.
  rewrite (mx_nlevels _ _ X), (mx_l2v _ _ X), (semk_mext s s' H X _ r _ A). reflexivity.
Qed.

(** a function of a table reads only the table's variables *)
Lemma mfun_of_local : forall s r a a', WF s -> (forall v, v < nlevels s -> a v = a' v) ->
  mfun_of s r a = mfun_of s r a'.
Proof.
  intros s r a a' H Hag. unfold mfun_of.
  rewrite (BuildCanonProofs.semk_ext_lt s H _ r (choice_of s a) (choice_of s a')); [reflexivity|].
  intros l Hl. unfold choice_of. destruct (wf_perm_l2v s H l Hl) as [v [E1 E2]]. rewrite E1.
  assert (Hv : v < nlevels s).
  { unfold nlevels. rewrite <- (wf_perm_len s H). apply nth_error_Some. congruence. }
  rewrite (Hag _ Hv). reflexivity.
Qed.

Lemma cube_widen : forall s k hs r lits, Cube s r lits -> Cube (widen s k hs) r lits.
Proof.
  intros s k hs r lits Hc. induction Hc.
  - apply CubeOne. assumption.
  - eapply CubePos; eauto.
  - eapply CubeNeg; eauto.
Qed.

Lemma mentry_ok_widen : forall s k hs code args r, WF s ->
  mentry_ok s code args r -> mentry_ok (widen s k hs) code args r.
Proof.
  intros s k hs code args r H. unfold mentry_ok.
  destruct args as [|f [|g [|h [|x rest]]]]; auto.
  - intros [H1 H2]. split.
    + intros o Hc. destruct (H1 o Hc) as [phi [psi [A [A' D]]]]. exists phi, psi.
      split; [|split]; apply denm_widen; assumption.
    + intros Hc. destruct (H2 Hc) as [phi [lits [A [Cu D]]]]. exists phi, lits.
      split; [apply denm_widen; assumption|]. split; [apply cube_widen; exact Cu | apply denm_widen; assumption].
  - intros Hx Hc. destruct (Hx Hc) as [phi [psi [theta [A [A' [A'' D]]]]]]. exists phi, psi, theta.
    split; [|split; [|split]]; apply denm_widen; assumption.
Qed.

Lemma mcacheok_widen : forall C (cget : C -> N -> list ref -> option ref) s k hs c, WF s ->
  MCacheOK cget s c -> MCacheOK cget (widen s k hs) c.
Proof. intros C cget s k hs c H O code args r E. apply mentry_ok_widen; [exact H | apply (O _ _ _ E)]. Qed.

(** ** Canonicity in terms of functions of the variables *)

Lemma bchoice_is_asg : forall s c, WF s -> bchoice c ->
  exists a, forall l, l < nlevels s -> choice_of s a l = c l.
Proof.
  intros s c H Hc. exists (fun v => Nat.eqb (c (nth v (s_v2l s) 0)) 0).
  intros l Hl. unfold choice_of. destruct (wf_perm_l2v s H l Hl) as [v [E1 E2]].
  rewrite E1, (nth_error_nth _ _ 0 E2). specialize (Hc l).
  destruct (Nat.eqb_spec (c l) 0) as [->|Hne]; [reflexivity | lia].
Qed.

Lemma denm_at_asg : forall s r phi c a, WF s -> DenM s r phi -> bchoice c ->
  (forall l, l < nlevels s -> choice_of s a l = c l) -> phi c = mfun_of s r a.
Proof.
  intros s r phi c a H D Hc Ha. rewrite (mfun_of_den s r phi D a). apply code_inj.
  assert (E1 := proj2 D c Hc). assert (E2 := proj2 D _ (choice_of_bchoice s a)).
  rewrite (BuildCanonProofs.semk_ext_lt s H _ r c (choice_of s a)) in E1
    by (intros l Hl; symmetry; apply Ha; exact Hl).
  congruence.
Qed.

Theorem mfun_canon : forall s r1 r2, MtOK s -> ref_ok s r1 -> ref_ok s r2 ->
  (forall a, mfun_of s r1 a = mfun_of s r2 a) -> r1 = r2.
Proof.
  intros s r1 r2 B O1 O2 Heq. pose proof (mo_wf s B) as H.
  destruct (denm_exists s r1 B O1) as [phi D1]. destruct (denm_exists s r2 B O2) as [psi D2].
  apply (denm_canon s r1 r2 phi B D1). apply (denm_ext s r2 psi phi D2).
  intros c Hc. destruct (bchoice_is_asg s c H Hc) as [a Ha].
  rewrite (denm_at_asg s r2 psi c a H D2 Hc Ha), (denm_at_asg s r1 phi c a H D1 Hc Ha). symmetry. apply Heq.
Qed.

(** ** Garbage collection of the terminals *)

Lemma assoc_N_filter_key : forall (P : N -> bool) l t,
  assoc_N (filter (fun p : N * N => P (fst p)) l) t = if P t then assoc_N l t else None.
Proof.
  intros P. induction l as [|[a b] r IH]; intros t; simpl; [destruct (P t); reflexivity|].
  destruct (P a) eqn:Ea; simpl.
  - destruct (N.eqb_spec a t) as [->|Hne]; [rewrite Ea; reflexivity | apply IH].
  - destruct (N.eqb_spec a t) as [->|Hne]; [rewrite Ea; rewrite IH, Ea; reflexivity | apply IH].
Qed.

Lemma term_val_gc_terms : forall s t,
  term_val (gc_terms s) t = if term_used s t then term_val s t else None.
Proof. intros s t. unfold gc_terms, term_val. simpl. apply assoc_N_filter_key. Qed.

Lemma term_used_handle : forall s h t, In h (s_handles s) -> eref (snd h) = RT t -> term_used s t = true.
Proof.
  intros s h t Hin E. unfold term_used. apply orb_true_iff. left. apply existsb_exists.
  exists h. split; [exact Hin|]. rewrite E. apply ref_eqb_eq. reflexivity.
Qed.

Lemma term_used_child : forall s id nd e t, find_node s id = Some nd -> In e (nchildren nd) ->
  eref e = RT t -> term_used s t = true.
Proof.
  intros s id nd e t En He E. unfold term_used. apply orb_true_iff. right. apply existsb_exists.
  exists (id, nd). split; [apply PositiveMap.elements_correct; exact En|]. simpl.
  apply existsb_exists. exists e. split; [exact He|]. rewrite E. apply ref_eqb_eq. reflexivity.
Qed.

Lemma term_used_spec : forall s t, term_used s t = true ->
  (exists h, In h (s_handles s) /\ eref (snd h) = RT t) \/
  (exists id nd e, find_node s id = Some nd /\ In e (nchildren nd) /\ eref e = RT t).
Proof.
  intros s t Hu. unfold term_used in Hu. apply orb_true_iff in Hu. destruct Hu as [Hu|Hu].
  - apply existsb_exists in Hu. destruct Hu as [h [Hin E]]. apply ref_eqb_eq in E. left. eauto.
  - apply existsb_exists in Hu. destruct Hu as [[id nd] [Hin Hx]]. simpl in Hx.
    apply existsb_exists in Hx. destruct Hx as [e [He E]]. apply ref_eqb_eq in E.
    right. exists id, nd, e. split; [apply PositiveMap.elements_complete; exact Hin|]. auto.
Qed.

Lemma ref_ok_gc_terms : forall s r, ref_ok s r ->
  (forall t, r = RT t -> term_used s t = true) -> ref_ok (gc_terms s) r.
Proof.
  intros s [t|id] O Hu; simpl in *.
  - destruct O as [v E]. exists v. rewrite term_val_gc_terms, (Hu t eq_refl). exact E.
  - exact O.
Qed.

Theorem gc_terms_ok : forall s, MtOK s ->
  MtOK (gc_terms s) /\ mext (gc_terms s) s /\
  (forall r, ref_ok (gc_terms s) r -> ref_ok s r).
Proof.
  intros s B. pose proof (mo_wf s B) as H.
  assert (Hsub : forall t c, term_val (gc_terms s) t = Some c -> term_val s t = Some c).
  { intros t c E. rewrite term_val_gc_terms in E. destruct (term_used s t); [exact E | discriminate]. }
  assert (Hback : forall r, ref_ok (gc_terms s) r -> ref_ok s r).
  { intros [t|id] O; simpl in *; [destruct O as [v E]; exists v; apply Hsub; exact E | exact O]. }
  split; [|split; [|exact Hback]].
  - constructor.
    + constructor; try (apply H).
      * intros id nd e En He. destruct (wf_child s H id nd e En He) as [Ok Lv]. split; [|exact Lv].
        apply ref_ok_gc_terms; [exact Ok|]. intros t Et. apply (term_used_child s id nd e t En He Et).
      * intros id nd En. pose proof (wf_reduced s H id nd En) as R. unfold reduced in *.
        change (s_kind (gc_terms s)) with (s_kind s). rewrite (mo_kind s B) in *. exact R.
      * unfold gc_terms. simpl. apply nodup_map_filter. apply (wf_term_ids s H).
      * unfold gc_terms. simpl. apply nodup_map_filter. apply (wf_term_vals s H).
      * intros h Hh. destruct (wf_handles s H h Hh) as [Ok Tg]. split; [|exact Tg].
        apply ref_ok_gc_terms; [exact Ok|]. intros t Et. apply (term_used_handle s h t Hh Et).
    + exact (mo_kind s B).
    + intros t c E. apply (mo_vals s B t c). apply Hsub. exact E.
  - constructor; try reflexivity; [exact Hsub | auto].
Qed.

Theorem mgc_facts : forall s, MtOK s ->
  let sg := gc_model_m s in
  MtOK sg /\ mext sg s /\ s_handles sg = s_handles s /\
  (forall h, In h (s_handles s) -> ref_ok sg (eref (snd h))) /\
  (forall id nd, find_node sg id = Some nd ->
     find_node s id = Some nd /\ reachable s (handle_refs s) (RN id)) /\
  (forall t c, term_val sg t = Some c ->
     term_val s t = Some c /\
     ((exists h, In h (s_handles s) /\ eref (snd h) = RT t) \/
      (exists id nd e, find_node sg id = Some nd /\ In e (nchildren nd) /\ eref e = RT t))).
Proof.
  intros s B. simpl. unfold gc_model_m. set (g := gc_model s).
  pose proof (gc_model_collected s (mo_wf s B)) as Cg. fold g in Cg.
  pose proof (collected_wf_gen s g (mo_wf s B) Cg) as Hg.
  pose proof (collected_sub_gen s g Cg) as Xg.
  assert (Bg : MtOK g).
  { constructor; [exact Hg | rewrite (co_kind s g Cg); apply (mo_kind s B)|].
    intros t c. rewrite (cw_term_val s g Cg). apply (mo_vals s B). }
  destruct (gc_terms_ok g Bg) as [Bt [Xt Hback]].
  split; [exact Bt|]. split; [apply (mext_trans _ g); [exact Xt | apply mext_of_extends; exact Xg]|].
  split; [change (s_handles (gc_terms g)) with (s_handles g); apply (co_handles s g Cg)|].
  split; [|split].
  - intros h Hh. apply (wf_handles _ (mo_wf _ Bt)).
    change (s_handles (gc_terms g)) with (s_handles g). rewrite (co_handles s g Cg). exact Hh.
  - intros id nd E0. change (find_node g id = Some nd) in E0.
    apply (proj1 (co_nodes s g Cg id nd) E0).
  - intros t c E0. rewrite term_val_gc_terms in E0.
    destruct (term_used g t) eqn:Eu; [|discriminate]. rewrite (cw_term_val s g Cg) in E0.
    split; [exact E0|]. destruct (term_used_spec g t Eu) as [[h [Hin Eh]]|[id [nd [e [En [He Ee]]]]]].
    + left. exists h. rewrite <- (co_handles s g Cg). auto.
    + right. exists id, nd, e. auto.
Qed.

(** ** [set_var_order_model] in the vocabulary of the state machine *)

Lemma mt_bink : forall s, MtOK s -> bink (s_kind s).
Proof. intros s B. right. apply (mo_kind s B). Qed.

(** [mfun_of] is [eval_vars] decoded *)
Lemma mfun_eval_vars : forall s e a, WF s -> s_kind s = KMtbdd ->
  mfun_of s (eref e) a = match eval_vars s e a with Some n => decode n | None => INaN end.
Proof.
  intros s e a H Hk. unfold mfun_of, eval_vars, sem_edge, ApplyProofs.FUEL. rewrite Hk.
  rewrite (BuildCanonProofs.semk_ext_lt s H _ (eref e) (choice_of s a) (asg_choice s a)); [reflexivity|].
  intros l Hl. unfold choice_of, asg_choice.
  destruct (nth_error (s_l2v s) l) as [v|] eqn:E.
  - rewrite (nth_error_nth _ _ 0 E). reflexivity.
  - apply nth_error_None in E. unfold nlevels in Hl. lia.
Qed.

Theorem mreorder_facts : forall s order, MtOK s -> NoDup order ->
  Forall (fun v => v < nlevels s) order ->
  let s' := set_var_order_model s order in
  MtOK s' /\ nlevels s' = nlevels s /\ s_handles s' = s_handles s /\ s_terms s' = s_terms s /\
  (forall h, In h (s_handles s) ->
     ref_ok s' (eref (snd h)) /\ forall a, mfun_of s' (eref (snd h)) a = mfun_of s (eref (snd h)) a) /\
  (forall a b, a < b < length order ->
     nth (nth a order 0) (s_v2l s') 0 < nth (nth b order 0) (s_v2l s') 0).
Proof.
  intros s order B Hnd Hr. simpl. pose proof (mo_wf s B) as H.
  destruct (set_var_order_model_correct s order H (mt_bink s B) Hnd Hr) as [A [B0 [Cn [D [G _]]]]].
  assert (Et : s_terms (set_var_order_model s order) = s_terms s) by (apply reorder_terms).
  assert (B' : MtOK (set_var_order_model s order)).
  { constructor; [exact A | rewrite B0; apply (mo_kind s B)|].
    intros t c. unfold term_val. rewrite Et. apply (mo_vals s B). }
  split; [exact B'|]. split; [exact Cn|]. split; [exact D|]. split; [exact Et|]. split.
  - intros h Hh. assert (O' : ref_ok (set_var_order_model s order) (eref (snd h))).
    { apply (wf_handles _ A). rewrite D. exact Hh. }
    split; [exact O'|]. intros a.
    rewrite (mfun_eval_vars _ (snd h) a A) by (rewrite B0; apply (mo_kind s B)).
    rewrite (mfun_eval_vars s (snd h) a H (mo_kind s B)).
    destruct (G h a Hh) as [E _]. rewrite E. reflexivity.
  - apply (set_var_order_model_respects s order H (mt_bink s B) Hnd Hr).
Qed.
