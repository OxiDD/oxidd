(** * A concrete MTBDD history through every kind of call, and the theorems instantiated on it

    [exm_ops]: 28 calls on an MTBDD manager (integer terminals) with 3
    variables covering all 10 constructors of [mhop] and all six binary
    operators (constants, variables, 3*x0 + x1, sub / max / min / div, ite, a
    cube x0 * (1 - x2) and two restrictions by it - before and after a
    collection + reordering -, clone, drops that leave terminals without any
    reference, two collections that remove inner nodes AND terminals, a
    reordering to [2; 0; 1], a variable added late), run with an unbounded cache
    and operand order "always swap".
    [exm_fresh]: a fresh manager with 4 variables that is only brought into the
    same variable order and builds the two operands, run WITHOUT cache and with
    operand order "never swap".
    Everything here is computed by [vm_compute] on the executable model; the
    theorems of Mgr/HistoryMThms.v / HistoryMSpec.v are then applied to the
    computed states. *)

From Coq Require Import List NArith ZArith PArith Bool Arith Lia FMapPositive.
From OxiVerif Require Import DD.Table DD.TableProofs DD.Sem DD.Build DD.Apply DD.ApplyProofs DD.ConfigApply
  Num.I64 DD.ApplyMtbdd DD.ApplyMtbddBase DD.ApplyMtbddProofs DD.ApplyMtbddTop
  Mgr.History Mgr.HistoryExamples
  Mgr.HistoryM Mgr.HistoryMBase Mgr.HistoryMProofs Mgr.HistoryMThms Mgr.HistoryMSpec.
Import ListNotations.
Local Open Scope N_scope.

(** ** Deciding equality of two diagram functions by enumeration ([all_asgs] of Mgr/HistoryExamples.v) *)

Definition i64v_eqb (x y : i64v) : bool := N.eqb (code x) (code y).

Lemma i64v_eqb_eq : forall x y, i64v_eqb x y = true -> x = y.
Proof. intros x y E. apply N.eqb_eq in E. apply code_inj. exact E. Qed.

Definition mfun_eqb (n : nat) (f g : asg -> i64v) : bool :=
  forallb (fun a => i64v_eqb (f a) (g a)) (all_asgs n).

Lemma mfun_eq_enum : forall s1 s2 r1 r2 n, WF s1 -> WF s2 -> nlevels s1 = n -> nlevels s2 = n ->
  mfun_eqb n (mfun_of s1 r1) (mfun_of s2 r2) = true ->
  forall a, mfun_of s1 r1 a = mfun_of s2 r2 a.
Proof.
  intros s1 s2 r1 r2 n H1 H2 N1 N2 Hb a. destruct (all_asgs_cover n a) as [a' [Hin Hag]].
  unfold mfun_eqb in Hb. rewrite forallb_forall in Hb. specialize (Hb a' Hin). apply i64v_eqb_eq in Hb.
  rewrite (mfun_of_local s1 r1 a a' H1) by (rewrite N1; exact Hag).
  rewrite (mfun_of_local s2 r2 a a' H2) by (rewrite N2; exact Hag). exact Hb.
Qed.

(** ** Configuration A: unbounded cache, operands always swapped *)

Definition mgtA : ref -> ref -> bool := fun _ _ => true.
Notation mstepA := (hstep_m mgtA acache ac_get ac_add []).
Notation mrunA := (hrun_m mgtA acache ac_get ac_add []).
Lemma memptyA : forall k a, ac_get [] k a = None.
Proof. reflexivity. Qed.

(** ** Configuration B: no cache, operands never swapped *)

Definition mgtB : ref -> ref -> bool := fun _ _ => false.
Notation mstepB := (hstep_m mgtB unit nc_get nc_add tt).
Notation mrunB := (hrun_m mgtB unit nc_get nc_add tt).
Lemma memptyB : forall k a, nc_get tt k a = None.
Proof. reflexivity. Qed.

(** ** The long history *)

Definition exm_ops : list mhop :=
  [ MHVar 0 0; MHVar 1 1; MHVar 2 2;       (* x0, x1, x2 *)
    MHConst 3 (INum 3);
    MHBin MMul 4 3 0;                      (* 3 * x0 *)
    MHBin MAdd 5 4 1;                      (* 3 * x0 + x1 *)
    MHBin MSub 6 5 2;                      (* 3 * x0 + x1 - x2: terminals -1, 2 *)
    MHBin MMax 7 5 2;
    MHBin MMin 8 5 2;
    MHBin MDiv 9 5 3;                      (* (3 * x0 + x1) / 3 *)
    MHIte 10 0 5 2;                        (* if x0 then 3 * x0 + x1 else x2 *)
    MHConst 11 (INum 1);
    MHBin MSub 12 11 2;                    (* 1 - x2 *)
    MHBin MMul 13 0 12;                    (* the cube x0 * (1 - x2) *)
    MHRestrict 14 5 13;
    MHClone 15 5;
    MHDrop 6; MHDrop 9; MHDrop 3;
    MHGc;                                  (* 6 inner nodes and the terminals -1, 2 go *)
    MHSetVarOrder [2%nat; 0%nat; 1%nat];
    MHRestrict 16 5 13;                    (* the same call after the reordering *)
    MHAddVars 1;
    MHVar 17 3;                            (* the new variable *)
    MHBin MAdd 18 5 17;
    MHConst 19 (INum 7);
    MHDrop 19;
    MHGc ].                                (* the terminal 7 goes *)

Definition exm_stA : hstate_m acache :=
  match mrunA (hinit_m acache [] 3) exm_ops with Some st => st | None => hinit_m acache [] 0 end.

Lemma exm_preA : mhops_pre_b mgtA acache ac_get ac_add [] (hinit_m acache [] 3) exm_ops = true.
Proof. vm_compute. reflexivity. Qed.

(** the final state as a value: the facts below are read off it, so that checking
    them does not run the history again each time *)
Definition exm_valA : hstate_m acache := Eval vm_compute in exm_stA.
Lemma exm_runA_val : mrunA (hinit_m acache [] 3) exm_ops = Some exm_valA.
Proof. vm_compute. reflexivity. Qed.
Lemma exm_stA_val : exm_stA = exm_valA.
Proof. unfold exm_stA. rewrite exm_runA_val. reflexivity. Qed.

Lemma exm_runA : mrunA (hinit_m acache [] 3) exm_ops = Some exm_stA.
Proof. rewrite exm_stA_val. exact exm_runA_val. Qed.

(** every constructor occurs *)
Definition mhop_tag (o : mhop) : nat :=
  match o with
  | MHConst _ _ => 0 | MHVar _ _ => 1 | MHBin _ _ _ _ => 2 | MHIte _ _ _ _ => 3 | MHRestrict _ _ _ => 4
  | MHClone _ _ => 5 | MHDrop _ => 6 | MHGc => 7 | MHAddVars _ => 8 | MHSetVarOrder _ => 9
  end%nat.

Lemma exm_ops_cover : forallb (fun t => existsb (fun o => Nat.eqb (mhop_tag o) t) exm_ops) (seq 0 10) = true
                      /\ length exm_ops = 28%nat.
Proof. vm_compute. auto. Qed.

(** the run is not trivial: the first collection (after 19 calls) removes 6 of 19
    inner nodes and 2 of 6 terminals; at the end: 21 nodes, 6 terminals (no 7) *)
Definition exm_st19 : hstate_m acache :=
  match mrunA (hinit_m acache [] 3) (firstn 19 exm_ops) with Some st => st | None => hinit_m acache [] 0 end.
Definition exm_st20 : hstate_m acache :=
  match mrunA (hinit_m acache [] 3) (firstn 20 exm_ops) with Some st => st | None => hinit_m acache [] 0 end.

Lemma exm_gc_counts :
  PositiveMap.cardinal (s_nodes (hm_s acache exm_st19)) = 19%nat /\
  length (s_terms (hm_s acache exm_st19)) = 6%nat /\
  PositiveMap.cardinal (s_nodes (hm_s acache exm_st20)) = 13%nat /\
  length (s_terms (hm_s acache exm_st20)) = 4%nat /\
  term_val (hm_s acache exm_st19) 6 = Some (code (INum (-1))) /\
  term_val (hm_s acache exm_st20) 6 = None.
Proof. vm_compute. repeat split; reflexivity. Qed.

Lemma exm_stA_shape :
  PositiveMap.cardinal (s_nodes (hm_s acache exm_stA)) = 21%nat /\
  length (s_terms (hm_s acache exm_stA)) = 6%nat /\
  existsb (fun p : N * N => N.eqb (snd p) (code (INum 7))) (s_terms (hm_s acache exm_stA)) = false /\
  s_l2v (hm_s acache exm_stA) = [2; 0; 1; 3]%nat /\
  s_v2l (hm_s acache exm_stA) = [1; 2; 0; 3]%nat /\
  length (s_handles (hm_s acache exm_stA)) = 16%nat /\
  wf_b (hm_s acache exm_stA) = true /\ mt_ok_b (hm_s acache exm_stA) = true.
Proof. rewrite exm_stA_val. vm_compute. repeat split; reflexivity. Qed.

Theorem exm_reachA : hreach_m mgtA acache ac_get ac_add [] 3 exm_stA.
Proof.
  exists exm_ops. split; [|exact exm_runA].
  apply (mhops_pre_b_sound mgtA acache ac_get ac_add ac_lossy [] memptyA).
  - apply (hinit_m_inv acache ac_get [] memptyA).
  - exact exm_preA.
Qed.

Theorem exm_invA : HInvM acache ac_get exm_stA.
Proof. apply (hreach_m_inv mgtA acache ac_get ac_add ac_lossy [] memptyA 3). exact exm_reachA. Qed.

Theorem exm_wfA : wf_b (hm_s acache exm_stA) = true /\ mt_ok_b (hm_s acache exm_stA) = true.
Proof. apply (histm_wf mgtA acache ac_get ac_add ac_lossy [] memptyA 3). exact exm_reachA. Qed.

(** slots 5 and 15 (a clone) hold the same edge, and so do slots 14 and 16: the
    restriction computed before and after collection + reordering; slots 5 and
    7 hold different edges, hence (canonicity) different functions *)
Theorem exm_canonA :
  hget (s_handles (hm_s acache exm_stA)) 5 = hget (s_handles (hm_s acache exm_stA)) 15 /\
  hget (s_handles (hm_s acache exm_stA)) 14 = hget (s_handles (hm_s acache exm_stA)) 16 /\
  forall e5 e7, hget (s_handles (hm_s acache exm_stA)) 5 = Some e5 ->
                hget (s_handles (hm_s acache exm_stA)) 7 = Some e7 ->
    ~ (forall a, mfun_of (hm_s acache exm_stA) (eref e5) a = mfun_of (hm_s acache exm_stA) (eref e7) a).
Proof.
  split; [rewrite exm_stA_val; reflexivity|]. split; [rewrite exm_stA_val; reflexivity|]. intros e5 e7 E5 E7 Heq.
  assert (X : e5 = e7).
  { apply (proj2 (histm_canonical mgtA acache ac_get ac_add ac_lossy [] memptyA 3
                    exm_stA exm_reachA 5 7 e5 e7 E5 E7)). exact Heq. }
  assert (Y : hget (s_handles (hm_s acache exm_stA)) 5 <> hget (s_handles (hm_s acache exm_stA)) 7)
    by (rewrite exm_stA_val; vm_compute; discriminate).
  apply Y. rewrite E5, E7, X. reflexivity.
Qed.

(** ** The fresh manager *)

Definition exm_fresh : list mhop :=
  [ MHSetVarOrder [2%nat; 0%nat; 1%nat];
    MHVar 0 0; MHVar 1 1; MHVar 2 3;
    MHConst 3 (INum 3);
    MHBin MMul 4 0 3;                      (* x0 * 3 *)
    MHBin MAdd 5 1 4 ].                    (* x1 + x0 * 3 *)

Definition exm_stB : hstate_m unit :=
  match mrunB (hinit_m unit tt 4) exm_fresh with Some st => st | None => hinit_m unit tt 0 end.

Lemma exm_preB : mhops_pre_b mgtB unit nc_get nc_add tt (hinit_m unit tt 4) exm_fresh = true.
Proof. vm_compute. reflexivity. Qed.

Definition exm_valB : hstate_m unit := Eval vm_compute in exm_stB.
Lemma exm_runB_val : mrunB (hinit_m unit tt 4) exm_fresh = Some exm_valB.
Proof. vm_compute. reflexivity. Qed.
Lemma exm_stB_val : exm_stB = exm_valB.
Proof. unfold exm_stB. rewrite exm_runB_val. reflexivity. Qed.

Lemma exm_runB : mrunB (hinit_m unit tt 4) exm_fresh = Some exm_stB.
Proof. rewrite exm_stB_val. exact exm_runB_val. Qed.

Theorem exm_reachB : hreach_m mgtB unit nc_get nc_add tt 4 exm_stB.
Proof.
  exists exm_fresh. split; [|exact exm_runB].
  apply (mhops_pre_b_sound mgtB unit nc_get nc_add nc_lossy tt memptyB).
  - apply (hinit_m_inv unit nc_get tt memptyB).
  - exact exm_preB.
Qed.

Lemma exm_same_order :
  s_l2v (hm_s acache exm_stA) = s_l2v (hm_s unit exm_stB) /\ s_v2l (hm_s acache exm_stA) = s_v2l (hm_s unit exm_stB).
Proof. rewrite exm_stA_val, exm_stB_val. split; reflexivity. Qed.

Definition mslot_ref (C : Type) (st : hstate_m C) (k : N) : ref :=
  match mslot C st k with Some r => r | None => RT 0 end.

Definition mfA5 : asg -> i64v := mfun_of (hm_s acache exm_stA) (mslot_ref acache exm_stA 5).
Definition mfA17 : asg -> i64v := mfun_of (hm_s acache exm_stA) (mslot_ref acache exm_stA 17).

Lemma exm_holdsA5 : mholds acache exm_stA 5 mfA5.
Proof. exists (mslot_ref acache exm_stA 5). split; [rewrite exm_stA_val; reflexivity | intros a; unfold mfA5; reflexivity]. Qed.
Lemma exm_holdsA17 : mholds acache exm_stA 17 mfA17.
Proof. exists (mslot_ref acache exm_stA 17). split; [rewrite exm_stA_val; reflexivity | intros a; unfold mfA17; reflexivity]. Qed.

Lemma exm_WFB : WF (hm_s unit exm_stB).
Proof. apply wf_b_spec. rewrite exm_stB_val. vm_compute. reflexivity. Qed.
Lemma exm_WFA : WF (hm_s acache exm_stA).
Proof. apply wf_b_spec. rewrite exm_stA_val. vm_compute. reflexivity. Qed.
Lemma exm_nA : nlevels (hm_s acache exm_stA) = 4%nat.
Proof. rewrite exm_stA_val. reflexivity. Qed.
Lemma exm_nB : nlevels (hm_s unit exm_stB) = 4%nat.
Proof. rewrite exm_stB_val. reflexivity. Qed.

Lemma exm_enum5 : mfun_eqb 4 (mfun_of (hm_s unit exm_stB) (mslot_ref unit exm_stB 5))
                             (mfun_of (hm_s acache exm_stA) (mslot_ref acache exm_stA 5)) = true.
Proof. rewrite exm_stA_val, exm_stB_val. vm_compute. reflexivity. Qed.
Lemma exm_enum2 : mfun_eqb 4 (mfun_of (hm_s unit exm_stB) (mslot_ref unit exm_stB 2))
                             (mfun_of (hm_s acache exm_stA) (mslot_ref acache exm_stA 17)) = true.
Proof. rewrite exm_stA_val, exm_stB_val. vm_compute. reflexivity. Qed.

Lemma exm_holdsB5 : mholds unit exm_stB 5 mfA5.
Proof.
  exists (mslot_ref unit exm_stB 5). split; [rewrite exm_stB_val; reflexivity|].
  exact (mfun_eq_enum (hm_s unit exm_stB) (hm_s acache exm_stA) (mslot_ref unit exm_stB 5) (mslot_ref acache exm_stA 5)
                      4%nat exm_WFB exm_WFA exm_nB exm_nA exm_enum5).
Qed.
Lemma exm_holdsB2 : mholds unit exm_stB 2 mfA17.
Proof.
  exists (mslot_ref unit exm_stB 2). split; [rewrite exm_stB_val; reflexivity|].
  exact (mfun_eq_enum (hm_s unit exm_stB) (hm_s acache exm_stA) (mslot_ref unit exm_stB 2) (mslot_ref acache exm_stA 17)
                      4%nat exm_WFB exm_WFA exm_nB exm_nA exm_enum2).
Qed.

(** C08 / C01 / C10: the product (3 * x0 + x1) * x3 computed in the long-lived
    manager (28 calls, two collections that also removed terminals, a
    reordering, an added variable; cache, swapped operands) and in the fresh
    one (no cache) denote the same function and have the same number of nodes *)
Theorem exm_fresh_equiv :
  exists stA' stB' r1 r2,
    mstepA exm_stA (MHBin MMul 30 5 17) = Some stA' /\ mstepB exm_stB (MHBin MMul 9 5 2) = Some stB' /\
    mslot acache stA' 30 = Some r1 /\ mslot unit stB' 9 = Some r2 /\
    (forall a, mfun_of (hm_s acache stA') r1 a = mop_eval MMul (mfA5 a) (mfA17 a)) /\
    (forall a, mfun_of (hm_s unit stB') r2 a = mop_eval MMul (mfA5 a) (mfA17 a)) /\
    count_reach (hm_s acache stA') (E r1) = count_reach (hm_s unit stB') (E r2) /\
    wf_b (hm_s acache stA') = true /\ wf_b (hm_s unit stB') = true.
Proof.
  apply (histm_fresh_equiv mgtA mgtB acache unit ac_get ac_add nc_get nc_add ac_lossy nc_lossy
           [] tt memptyA memptyB 3 4 exm_ops exm_fresh exm_stA exm_stB).
  - apply (mhops_pre_b_sound mgtA acache ac_get ac_add ac_lossy [] memptyA);
      [apply (hinit_m_inv acache ac_get [] memptyA) | exact exm_preA].
  - exact exm_runA.
  - apply (mhops_pre_b_sound mgtB unit nc_get nc_add nc_lossy tt memptyB);
      [apply (hinit_m_inv unit nc_get tt memptyB) | exact exm_preB].
  - exact exm_runB.
  - apply exm_same_order.
  - apply exm_same_order.
  - apply (MSpBin acache exm_stA MMul 30 5 17 mfA5 mfA17 exm_holdsA5 exm_holdsA17).
  - apply (MSpBin unit exm_stB MMul 9 5 2 mfA5 mfA17 exm_holdsB5 exm_holdsB2).
Qed.

(** ** The hypotheses of [hspec_m] for restriction are satisfiable *)

Theorem exm_spec_restrict :
  exists st' lits, cube_lits 5 (hm_s acache exm_stA) (mslot_ref acache exm_stA 13) = Some lits /\
    lits = [(0%nat, false); (1%nat, true)] /\
    mstepA exm_stA (MHRestrict 31 5 13) = Some st' /\
    mholds acache st' 31 (fun a => mfA5 (force_asg (hm_s acache exm_stA) lits a)).
Proof.
  assert (El : cube_lits 5 (hm_s acache exm_stA) (mslot_ref acache exm_stA 13) = Some [(0%nat, false); (1%nat, true)])
    by (rewrite exm_stA_val; vm_compute; reflexivity).
  pose proof (cube_lits_sound _ (hmi_ok acache ac_get exm_stA exm_invA) _ _ _ El) as Hc.
  destruct (hstep_m_spec mgtA acache ac_get ac_add ac_lossy [] memptyA exm_stA _ 31 _ exm_invA
              (MSpRestrict acache exm_stA 31 5 13 mfA5 _ _ exm_holdsA5 ltac:(rewrite exm_stA_val; reflexivity) Hc))
    as [st' [E [_ [_ Hd]]]].
  exists st', [(0%nat, false); (1%nat, true)]. split; [exact El|]. split; [reflexivity|]. split; [exact E | exact Hd].
Qed.
