(** * The invariant of the MTBDD manager state machine and its preservation by every call

    [HInvM st]: the table is a well-formed MTBDD table whose terminal values
    are values of [I64] ([MtOK], which includes: every handle slot refers to a
    stored node or terminal, terminal ids and values pairwise distinct), and
    the apply cache serves only correct entries for all operator codes
    ([MCacheOK]).

    [hstep_m_ok]: for every state satisfying [HInvM], every configuration
    (operand order [gt], any [lossy] cache with any content that satisfies the
    cache invariant) and every well-formed request ([mhop_pre]), the call
    - runs to completion ([hstep_m] is not [None]),
    - re-establishes [HInvM],
    - [hframe_m]: changes no slot other than its destination, and every function
      held by a slot before the call is still stored and denotes the same
      function of the variables,
    - [hpost_m]: leaves in its destination the pointwise spec function of the
      operands' functions at the time of the call. *)

From Coq Require Import List NArith ZArith PArith Bool Arith Lia FMapPositive.
From OxiVerif Require Import DD.Table DD.TableProofs DD.Sem DD.Build DD.BuildProofs
  DD.Apply DD.ApplyProofs DD.ApplyEvalProofs DD.ConfigApply DD.ConfigInsert DD.ConfigRun
  Num.I64 Num.I64Proofs DD.ApplyMtbdd DD.ApplyMtbddBase DD.ApplyMtbddProofs DD.ApplyMtbddIte
  DD.ApplyMtbddRestrict DD.ApplyMtbddTop DD.FamSpecProofs
  Mgr.SortOrder Mgr.SortOrderProofs Mgr.LevelSwap Mgr.LevelSwapOrder Mgr.HistoryGc Mgr.HistoryReorder
  Mgr.History Mgr.HistoryBase Mgr.HistoryM Mgr.HistoryMBase.
Import ListNotations.

Local Arguments hset : simpl never.
Local Arguments hget : simpl never.
Local Arguments hdel : simpl never.
Local Arguments mfun_of : simpl never.
Local Arguments mt_apply_bin : simpl never.
Local Arguments mt_apply_ite : simpl never.
Local Arguments mt_restrict : simpl never.
Local Arguments mt_const : simpl never.
Local Arguments mt_var : simpl never.
Local Arguments gc_model_m : simpl never.
Local Arguments set_var_order_model : simpl never.

Definition morder_same (s s' : snap) : Prop := s_l2v s' = s_l2v s /\ s_v2l s' = s_v2l s.

Definition mchanges_order (o : mhop) : bool :=
  match o with MHAddVars _ | MHSetVarOrder _ => true | _ => false end.

Section HistM.
Variable gt : ref -> ref -> bool.
Variable C : Type.
Variable cget : C -> N -> list ref -> option ref.
Variable cadd : C -> N -> list ref -> ref -> C.
Hypothesis Hlossy : lossy cget cadd.
Variable cempty : C.
Hypothesis Hempty : forall k a, cget cempty k a = None.

Notation hstate_m := (hstate_m C).
Notation hstep_m := (hstep_m gt C cget cadd cempty).
Notation hrun_m := (hrun_m gt C cget cadd cempty).
Notation mkHM := (mkHM C).
Notation MOK := (MCacheOK cget).

Record HInvM (st : hstate_m) : Prop := mkHInvM {
  hmi_ok : MtOK (hm_s C st);
  hmi_cache : MOK (hm_s C st) (hm_c C st)
}.

(** everything a client still holds: the edges in the slots *)
Definition mroot (st : hstate_m) (r : ref) : Prop :=
  exists h, In h (s_handles (hm_s C st)) /\ eref (snd h) = r.

Lemma mroot_ok : forall st r, HInvM st -> mroot st r -> ref_ok (hm_s C st) r.
Proof. intros st r I [h [Hin <-]]. apply (m_handle_ok _ h (hmi_ok st I) Hin). Qed.

Lemma mslot_root : forall st k r, mslot C st k = Some r -> mroot st r.
Proof.
  intros st k r E. unfold mslot in E.
  destruct (hget (s_handles (hm_s C st)) k) as [e|] eqn:Eg; [|discriminate]. inversion E; subst.
  exists (k, e). split; [apply hget_In; exact Eg | reflexivity].
Qed.

Lemma mslot_ok : forall st k r, HInvM st -> mslot C st k = Some r -> ref_ok (hm_s C st) r.
Proof. intros st k r I E. apply (mroot_ok st r I). apply (mslot_root st k r E). Qed.

Lemma mok_empty : forall s, MOK s cempty.
Proof. intros s code args r E. rewrite Hempty in E. discriminate. Qed.

(** ** Well-formed requests *)

Definition moccupied (st : hstate_m) (k : N) : Prop := exists r, mslot C st k = Some r.

Definition mhop_pre (st : hstate_m) (o : mhop) : Prop :=
  let s := hm_s C st in
  match o with
  | MHConst _ v => wf v
  | MHVar _ v => v < nlevels s
  | MHBin _ _ a b => moccupied st a /\ moccupied st b
  | MHIte _ a b c => moccupied st a /\ moccupied st b /\ moccupied st c
  | MHRestrict _ a cube =>
    (* "vars" must be a product of literals *)
    moccupied st a /\ exists V lits, mslot C st cube = Some V /\ Cube s V lits
  | MHClone _ a => moccupied st a
  | MHDrop _ | MHGc | MHAddVars _ => True
  | MHSetVarOrder order => NoDup order /\ Forall (fun v => v < nlevels s) order
  end.

(** ** The frame *)

Definition hframe_m (st : hstate_m) (o : mhop) (st' : hstate_m) : Prop :=
  let s := hm_s C st in
  let s' := hm_s C st' in
  (forall x, mhdst o <> Some x -> hget (s_handles s') x = hget (s_handles s) x) /\
  (forall r, mroot st r -> ref_ok s' r /\ forall a, mfun_of s' r a = mfun_of s r a) /\
  (mchanges_order o = false -> morder_same s s').

(** ** What the destination holds afterwards *)

Definition mholds (st : hstate_m) (d : N) (F : asg -> i64v) : Prop :=
  exists r, mslot C st d = Some r /\ forall a, mfun_of (hm_s C st) r a = F a.

Definition hpost_m (st : hstate_m) (o : mhop) (st' : hstate_m) : Prop :=
  let s := hm_s C st in
  let s' := hm_s C st' in
  match o with
  | MHConst d v => mholds st' d (fun _ => v)
  | MHVar d v => mholds st' d (fun a => if a v then i64_one else i64_zero)
  | MHBin op d x y =>
    exists f g, mslot C st x = Some f /\ mslot C st y = Some g /\
      mholds st' d (fun a => mop_eval op (mfun_of s f a) (mfun_of s g a))
  | MHIte d x y z =>
    exists f g h, mslot C st x = Some f /\ mslot C st y = Some g /\ mslot C st z = Some h /\
      mholds st' d (fun a => if i64_is_zero (mfun_of s f a) then mfun_of s h a else mfun_of s g a)
  | MHRestrict d x cube =>
    exists f V, mslot C st x = Some f /\ mslot C st cube = Some V /\
      forall lits, Cube s V lits -> mholds st' d (fun a => mfun_of s f (force_asg s lits a))
  | MHClone d x => hget (s_handles s') d = hget (s_handles s) x /\ moccupied st' d
  | MHDrop x => hget (s_handles s') x = None /\ s_nodes s' = s_nodes s /\ s_terms s' = s_terms s
  | MHGc =>
    (forall id nd, find_node s' id = Some nd ->
       find_node s id = Some nd /\ exists r, mroot st r /\ reachable s [r] (RN id)) /\
    (forall t c, term_val s' t = Some c ->
       term_val s t = Some c /\
       (mroot st (RT t) \/
        exists id nd e, find_node s' id = Some nd /\ In e (nchildren nd) /\ eref e = RT t))
  | MHAddVars k =>
    s_l2v s' = s_l2v s ++ seq (nlevels s) k /\
    s_v2l s' = s_v2l s ++ seq (nlevels s) k /\ s_nodes s' = s_nodes s /\ s_terms s' = s_terms s
  | MHSetVarOrder order =>
    nlevels s' = nlevels s /\ s_handles s' = s_handles s /\ s_terms s' = s_terms s /\
    forall a b, a < b < length order ->
      nth (nth a order 0) (s_v2l s') 0 < nth (nth b order 0) (s_v2l s') 0
  end.

(** ** Storing the result of an algorithm *)

Lemma hinvm_put : forall st s' c' d r, HInvM st ->
  MtOK s' -> MOK s' c' -> ref_ok s' r -> HInvM (mkHM (put s' d r) c').
Proof.
  intros st s' c' d r I B' Q' Or. constructor; simpl.
  - apply mtok_put; assumption.
  - unfold put. rewrite widen_set_handles. apply mcacheok_widen; [apply (mo_wf s' B') | exact Q'].
Qed.

Lemma framem_put : forall st o s' c' d r, HInvM st -> mhdst o = Some d ->
  mext (hm_s C st) s' -> hframe_m st o (mkHM (put s' d r) c').
Proof.
  intros st o s' c' d r I Hd X. pose proof (hmi_ok st I) as B. split; [|split]; simpl.
  3: { intros _. split; [apply (mx_l2v _ _ X) | apply (mx_v2l _ _ X)]. }
  - intros x Hx. rewrite Hd in Hx. unfold put. simpl.
    rewrite hget_hset_other by congruence. rewrite (mx_handles _ _ X). reflexivity.
  - intros r0 Hr. pose proof (mroot_ok st r0 I Hr) as Ok. split.
    + unfold put. apply (mx_ref_ok _ _ _ X Ok).
    + intros a. unfold put. rewrite mfun_of_set_handles.
      apply (mfun_of_mext _ _ r0 a (mo_wf _ B) X Ok).
Qed.

Lemma mholds_put : forall s' c' d r F, (forall a, mfun_of s' r a = F a) ->
  mholds (mkHM (put s' d r) c') d F.
Proof.
  intros s' c' d r F HF. exists r. split.
  - unfold mslot, put. simpl. rewrite hget_hset_same. reflexivity.
  - intros a. simpl. unfold put. rewrite mfun_of_set_handles. apply HF.
Qed.

(** the common part of all calls that run an algorithm and store its result [r]; what is
    left to show is what the destination holds *)
Lemma mfinish_ok : forall st o d s' c' r, HInvM st -> mhdst o = Some d ->
  MtOK s' -> mext (hm_s C st) s' -> MOK s' c' -> ref_ok s' r ->
  hpost_m st o (mkHM (put s' d r) c') ->
  exists st', Some (mkHM (put s' d r) c') = Some st' /\ HInvM st' /\ hframe_m st o st' /\ hpost_m st o st'.
Proof.
  intros st o d s' c' r I Hd B' X Q' Or Po.
  eexists. split; [reflexivity|]. split; [apply (hinvm_put st); assumption|].
  split; [apply framem_put; assumption | exact Po].
Qed.

(** from a level-indexed denotation of the result to its function over variables *)
Lemma denm_to_mfun : forall s s' r Phi a, mext s s' -> DenM s' r Phi ->
  mfun_of s' r a = Phi (choice_of s a).
Proof.
  intros s s' r Phi a X D. rewrite (mfun_of_den s' r Phi D). unfold choice_of.
  rewrite (mx_l2v _ _ X). reflexivity.
Qed.

(** ** One call *)

Theorem hstep_m_ok : forall st o, HInvM st -> mhop_pre st o ->
  exists st', hstep_m st o = Some st' /\ HInvM st' /\ hframe_m st o st' /\ hpost_m st o st'.
Proof.
  intros st o I Pre. pose proof (hmi_ok st I) as B. pose proof (hmi_cache st I) as Q.
  pose proof (mo_wf _ B) as H.
  destruct o as [d v|d v|op d x y|d x y z|d x cube|d x|x| |k|order]; simpl in Pre; simpl hstep_m.
  - (* MHConst *)
    rewrite (proj2 (wfb_true v) Pre).
    destruct (mt_const (hm_s C st) v) as [s' r] eqn:E.
    destruct (mt_const_ok _ v s' r B Pre E) as [B' [X [D _]]].
    apply (mfinish_ok st (MHConst d v) d s' (hm_c C st) r I eq_refl B' X
                (mcacheok_mext C cget _ s' _ B X Q) (proj1 D)). simpl. apply mholds_put.
    intros a. apply (mfun_of_den s' r _ D).
  - (* MHVar *)
    destruct (mt_var_mfun _ v B Pre) as (s' & r & E & B' & X & Or & S). rewrite E.
    apply (mfinish_ok st (MHVar d v) d s' (hm_c C st) r I eq_refl B' X
                (mcacheok_mext C cget _ s' _ B X Q) Or). simpl. apply mholds_put. exact S.
  - (* MHBin *)
    destruct Pre as [[f Ef] [g Eg]]. rewrite Ef, Eg.
    pose proof (mslot_ok st x f I Ef) as Of. pose proof (mslot_ok st y g I Eg) as Og.
    destruct (denm_exists _ f B Of) as [phi Df]. destruct (denm_exists _ g B Og) as [psi Dg].
    destruct (mt_apply_bin_ok gt C cget cadd Hlossy op (S (nlevels (hm_s C st))) _ (hm_c C st) f g phi psi
                B Q Df Dg ltac:(lia)) as (s' & c' & r & E & B' & X & Q' & D' & _).
    rewrite E. simpl mfinish.
    apply (mfinish_ok st (MHBin op d x y) d s' c' r I eq_refl B' X Q' (proj1 D')).
    simpl. exists f, g. split; [exact Ef|]. split; [exact Eg|]. apply mholds_put. intros a.
    rewrite (denm_to_mfun _ s' r _ a X D'), (mfun_of_den _ f phi Df), (mfun_of_den _ g psi Dg). reflexivity.
  - (* MHIte *)
    destruct Pre as [[f Ef] [[g Eg] [h Eh]]]. rewrite Ef, Eg, Eh.
    pose proof (mslot_ok st x f I Ef) as Of. pose proof (mslot_ok st y g I Eg) as Og.
    pose proof (mslot_ok st z h I Eh) as Oh.
    destruct (denm_exists _ f B Of) as [phi Df]. destruct (denm_exists _ g B Og) as [psi Dg].
    destruct (denm_exists _ h B Oh) as [theta Dh].
    destruct (mt_apply_ite_ok C cget cadd Hlossy (S (nlevels (hm_s C st))) _ (hm_c C st) f g h phi psi theta
                B Q Df Dg Dh ltac:(lia)) as (s' & c' & r & E & B' & X & Q' & D' & _).
    rewrite E. simpl mfinish.
    apply (mfinish_ok st (MHIte d x y z) d s' c' r I eq_refl B' X Q' (proj1 D')).
    simpl. exists f, g, h. split; [exact Ef|]. split; [exact Eg|]. split; [exact Eh|]. apply mholds_put. intros a.
    rewrite (denm_to_mfun _ s' r _ a X D'), (mfun_of_den _ f phi Df), (mfun_of_den _ g psi Dg),
      (mfun_of_den _ h theta Dh). reflexivity.
  - (* MHRestrict *)
    destruct Pre as [[f Ef] [V [lits0 [Ev Hcube0]]]]. rewrite Ef, Ev.
    pose proof (mslot_ok st x f I Ef) as Of.
    destruct (denm_exists _ f B Of) as [phi Df]. pose proof (rlevel_le _ H f) as Hrl.
    destruct (mt_restrict_ok C cget cadd Hlossy (S (nlevels (hm_s C st))) _ (hm_c C st) f V phi lits0
                B Q Df Hcube0 ltac:(lia)) as (s' & c' & r & E & B' & X & Q' & D' & _).
    rewrite E. simpl mfinish.
    apply (mfinish_ok st (MHRestrict d x cube) d s' c' r I eq_refl B' X Q' (proj1 D')).
    simpl. exists f, V. split; [exact Ef|]. split; [exact Ev|].
    intros lits Hcube. apply mholds_put.
    destruct (mt_restrict_mfun C cget cadd Hlossy _ (hm_c C st) f V lits B Q Of Hcube)
      as (s2 & c2 & r2 & E2 & _ & _ & _ & S).
    unfold ApplyProofs.FUEL in E2. rewrite E in E2. inversion E2; subst s2 c2 r2. exact S.
  - (* MHClone *)
    destruct Pre as [f Ef]. rewrite Ef. pose proof (mslot_ok st x f I Ef) as Of.
    apply (mfinish_ok st (MHClone d x) d _ (hm_c C st) f I eq_refl B (mext_refl _) Q Of).
    simpl. unfold put. simpl. rewrite hget_hset_same.
    unfold mslot in Ef. destruct (hget (s_handles (hm_s C st)) x) as [e|] eqn:Eg; [|discriminate].
    inversion Ef; subst. split.
    + f_equal. apply edge_ext; [reflexivity|]. simpl. symmetry.
      apply (m_handle_ok _ (x, e) B (hget_In _ _ _ Eg)).
    + exists (eref e). unfold mslot. simpl. rewrite hget_hset_same. reflexivity.
  - (* MHDrop *)
    eexists. split; [reflexivity|]. split; [|split].
    + constructor; simpl.
      * apply mtok_drop. exact B.
      * rewrite widen_set_handles. apply mcacheok_widen; [exact H | exact Q].
    + split; [|split]; simpl.
      * intros y Hy. apply hget_hdel_other. congruence.
      * intros r Hr. split; [apply (mroot_ok st r I Hr) | intros a; apply mfun_of_set_handles].
      * intros _. split; reflexivity.
    + simpl. split; [apply hget_hdel_same | split; reflexivity].
  - (* MHGc *)
    destruct (mgc_facts _ B) as [Bg [Xg [Hh [Hok [Hnodes Hterms]]]]].
    remember (gc_model_m (hm_s C st)) as sg eqn:Esg.
    eexists. split; [reflexivity|]. split; [|split].
    + constructor; simpl; [exact Bg | apply mok_empty].
    + split; [|split]; simpl.
      * intros x _. rewrite Hh. reflexivity.
      * intros r [h [Hin <-]]. pose proof (Hok h Hin) as Ok. split; [exact Ok|]. intros a.
        symmetry. apply (mfun_of_mext sg _ _ a (mo_wf _ Bg) Xg Ok).
      * intros _. split; [symmetry; apply (mx_l2v _ _ Xg) | symmetry; apply (mx_v2l _ _ Xg)].
    + simpl. split.
      * intros id nd E0. destruct (Hnodes id nd E0) as [E1 R1]. split; [exact E1|].
        destruct (reachable_one _ (hm_s C st) _ _ (fun _ => eq_refl) R1) as [r [Hin Rr]].
        exists r. split; [|exact Rr]. unfold handle_refs in Hin. apply in_map_iff in Hin.
        destruct Hin as [h [<- Hin]]. exists h. auto.
      * intros t c E0. destruct (Hterms t c E0) as [E1 [[h [Hin Eh]]|Hn]]; split; try exact E1.
        -- left. exists h. auto.
        -- right. exact Hn.
  - (* MHAddVars *)
    eexists. split; [reflexivity|]. rewrite widen_add_vars. split; [|split].
    + constructor; simpl.
      * apply mtok_widen; [exact B|]. intros h Hin. apply (m_handle_ok _ h B Hin).
      * apply mcacheok_widen; [exact H | exact Q].
    + split; [|split]; simpl.
      * intros x _. reflexivity.
      * intros r Hr. pose proof (mroot_ok st r I Hr) as Ok.
        split; [apply ref_ok_widen; exact Ok | intros a; apply (mfun_of_widen _ _ _ _ _ H Ok)].
      * discriminate.
    + simpl. auto.
  - (* MHSetVarOrder *)
    destruct Pre as [Hnd Hr].
    assert (Hsame : hframe_m st (MHSetVarOrder order) st).
    { split; [intros; reflexivity|]. split; [|discriminate].
      intros r Hrr. split; [apply (mroot_ok st r I Hrr) | reflexivity]. }
    destruct (Nat.leb (length order) 1) eqn:Elen.
    { exists st. split; [reflexivity|]. split; [exact I|]. split; [exact Hsame|]. simpl.
      split; [reflexivity|]. split; [reflexivity|]. split; [reflexivity|].
      intros a b Hab. apply Nat.leb_le in Elen. lia. }
    assert (Eok : order_ok_b (nlevels (hm_s C st)) order = true)
      by (apply order_ok_b_valid; split; assumption).
    rewrite Eok.
    destruct (nat_list_eqb _ (seq 0 (nlevels (hm_s C st)))) eqn:Esorted.
    { exists st. split; [reflexivity|]. split; [exact I|]. split; [exact Hsame|]. simpl.
      split; [reflexivity|]. split; [reflexivity|]. split; [reflexivity|].
      apply nat_list_eqb_eq in Esorted.
      apply (sorted_respects _ order H Hnd Hr Esorted). }
    destruct (mreorder_facts _ order B Hnd Hr) as [B2 [Hn2 [Hh2 [Ht2 [Hf2 Hresp]]]]].
    eexists. split; [reflexivity|]. split; [|split].
    + constructor; simpl; [exact B2 | apply mok_empty].
    + split; [|split]; simpl.
      * intros x _. rewrite Hh2. reflexivity.
      * intros r [h [Hin <-]]. apply (Hf2 h Hin).
      * discriminate.
    + simpl. split; [exact Hn2|]. split; [exact Hh2|]. split; [exact Ht2 | exact Hresp].
Qed.

End HistM.
