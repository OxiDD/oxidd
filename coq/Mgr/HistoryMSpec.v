(** * MTBDD: result correctness along histories; the result is determined by the
      operator, the operands' FUNCTIONS and the variable order

    - [count_reach_denm] / [same_mfun_same_count]: two references of two MTBDD
      tables over the same variable order that denote the same function have
      isomorphic sub-diagrams, in particular the same node count (the MTBDD
      copy of DD/Iso.v's [count_reach_den]);
    - [hspec_m st o d F]: call [o] issued in state [st] is to leave the function
      [F] in slot [d]; [F] is given by the functions the operand slots hold
      ([mholds]) - for [restrict] the cube operand is given by its literals
      ([Cube], structural);
    - [hstep_m_spec], [histm_result_unique], [histm_result_determined],
      [histm_fresh_equiv]: as for the other kinds. *)

From Coq Require Import List NArith ZArith PArith Bool Arith Lia FMapPositive.
From OxiVerif Require Import DD.Table DD.TableProofs DD.Sem DD.Build DD.BuildProofs
  DD.Apply DD.ApplyProofs DD.ApplyEvalProofs DD.ConfigApply DD.ConfigInsert DD.ConfigRun DD.Iso
  Num.I64 Num.I64Proofs DD.ApplyMtbdd DD.ApplyMtbddBase DD.ApplyMtbddProofs DD.ApplyMtbddTop
  Mgr.History Mgr.HistoryBase Mgr.HistoryM Mgr.HistoryMBase Mgr.HistoryMProofs Mgr.HistoryMThms.
Import ListNotations.

Local Arguments hset : simpl never.
Local Arguments hget : simpl never.
Local Arguments hdel : simpl never.
Local Arguments mfun_of : simpl never.

Definition mfeq (f g : asg -> i64v) : Prop := forall a, f a = g a.

(** ** Two MTBDD tables: the node count is a function of the denotation *)

Section TwoTablesM.
Variables s1 s2 : snap.
Hypothesis B1 : MtOK s1.
Hypothesis B2 : MtOK s2.
Hypothesis Hlev : nlevels s1 = nlevels s2.

Definition same_denm (r1 r2 : ref) : Prop :=
  exists phi, DenM s1 r1 phi /\ DenM s2 r2 phi.

Lemma same_denm_level : forall r1 r2, same_denm r1 r2 -> rlevel s1 r1 = rlevel s2 r2.
Proof.
  intros r1 r2 [phi [D1 D2]].
  pose proof (denm_indep s1 r1 phi (mo_wf s1 B1) D1) as I1.
  pose proof (denm_indep s2 r2 phi (mo_wf s2 B2) D2) as I2.
  pose proof (rlevel_le s1 (mo_wf s1 B1) r1) as L1.
  pose proof (rlevel_le s2 (mo_wf s2 B2) r2) as L2.
  pose proof (denm_level s2 r2 phi (rlevel s1 r1) B2 D2 ltac:(lia) I1).
  pose proof (denm_level s1 r1 phi (rlevel s2 r2) B1 D1 ltac:(lia) I2).
  lia.
Qed.

Lemma same_denm_fun : forall r1 r2 r2', same_denm r1 r2 -> same_denm r1 r2' -> r2 = r2'.
Proof.
  intros r1 r2 r2' [phi [D1 D2]] [phi' [D1' D2']].
  apply (denm_canon s2 _ _ phi B2 D2). apply (denm_ext s2 _ phi' phi D2').
  intros c Hc. apply (denm_unique s1 r1 phi' phi D1' D1 c Hc).
Qed.

Lemma same_denm_inj : forall r1 r1' r2, same_denm r1 r2 -> same_denm r1' r2 -> r1 = r1'.
Proof.
  intros r1 r1' r2 [phi [D1 D2]] [phi' [D1' D2']].
  apply (denm_canon s1 _ _ phi B1 D1). apply (denm_ext s1 _ phi' phi D1').
  intros c Hc. apply (denm_unique s2 r2 phi' phi D2' D2 c Hc).
Qed.

Lemma same_denm_bisim : bisim s1 s2 same_denm.
Proof.
  pose proof (mo_wf s1 B1) as H1. pose proof (mo_wf s2 B2) as H2.
  constructor.
  - intros r1 r2 HR. pose proof (same_denm_level r1 r2 HR) as Hl.
    destruct HR as [phi [D1 D2]].
    destruct r1 as [t|a], r2 as [u|b]; auto.
    + destruct (proj1 D2) as [nd E]. rewrite (rlevel_node s2 b nd E) in Hl. simpl in Hl.
      pose proof (wf_level s2 H2 b nd E). lia.
    + destruct (proj1 D1) as [nd E]. rewrite (rlevel_node s1 a nd E) in Hl. simpl in Hl.
      pose proof (wf_level s1 H1 a nd E). lia.
  - intros a b HR. pose proof (same_denm_level _ _ HR) as Hl. destruct HR as [phi [D1 D2]].
    destruct (proj1 D1) as [n1 E1]. destruct (proj1 D2) as [n2 E2]. rewrite E1, E2.
    rewrite (rlevel_node s1 a n1 E1), (rlevel_node s2 b n2 E2) in Hl.
    destruct (mt_children s1 a n1 B1 E1) as [x0 [x1 Ex]].
    destruct (mt_children s2 b n2 B2 E2) as [y0 [y1 Ey]].
    rewrite Ex, Ey. simpl.
    assert (Hx0 : nth_error (nchildren n1) 0 = Some x0) by (rewrite Ex; reflexivity).
    assert (Hx1 : nth_error (nchildren n1) 1 = Some x1) by (rewrite Ex; reflexivity).
    assert (Hy0 : nth_error (nchildren n2) 0 = Some y0) by (rewrite Ey; reflexivity).
    assert (Hy1 : nth_error (nchildren n2) 1 = Some y1) by (rewrite Ey; reflexivity).
    constructor; [|constructor; [|constructor]].
    + exists (cofM phi (nlevel n1) 0). split; [apply (denm_child s1 a n1 0 x0 phi B1 D1 E1 Hx0)|].
      rewrite Hl. apply (denm_child s2 b n2 0 y0 phi B2 D2 E2 Hy0).
    + exists (cofM phi (nlevel n1) 1). split; [apply (denm_child s1 a n1 1 x1 phi B1 D1 E1 Hx1)|].
      rewrite Hl. apply (denm_child s2 b n2 1 y1 phi B2 D2 E2 Hy1).
  - intros a b a' b' R R'. split; intros ->;
      [pose proof (same_denm_fun _ _ _ R R') as Hr | pose proof (same_denm_inj _ _ _ R R') as Hr];
      inversion Hr; reflexivity.
  - intros t u t' u' R R'. split; intros ->;
      [pose proof (same_denm_fun _ _ _ R R') as Hr | pose proof (same_denm_inj _ _ _ R R') as Hr];
      inversion Hr; reflexivity.
Qed.

(** same function => same node count, whatever the two tables otherwise contain *)
Theorem count_reach_denm : forall r1 r2 phi, DenM s1 r1 phi -> DenM s2 r2 phi ->
  count_reach s1 (E r1) = count_reach s2 (E r2).
Proof.
  intros r1 r2 phi D1 D2.
  apply (count_reach_bisim s1 s2 same_denm same_denm_bisim
           (wf_arity_ok s1 (mo_wf s1 B1)) (wf_arity_ok s2 (mo_wf s2 B2)) (E r1) (E r2)).
  exists phi. auto.
Qed.

End TwoTablesM.

(** same isomorphism class: equal functions of the variables, equal node counts *)
Lemma same_mfun_same_count : forall s1 s2 r1 r2, MtOK s1 -> MtOK s2 ->
  s_l2v s1 = s_l2v s2 -> s_v2l s1 = s_v2l s2 -> ref_ok s1 r1 -> ref_ok s2 r2 ->
  (forall a, mfun_of s1 r1 a = mfun_of s2 r2 a) ->
  count_reach s1 (E r1) = count_reach s2 (E r2).
Proof.
  intros s1 s2 r1 r2 B1 B2 Hl Hv O1 O2 Heq.
  pose proof (mo_wf s1 B1) as H1. pose proof (mo_wf s2 B2) as H2.
  destruct (denm_exists s1 r1 B1 O1) as [phi D1]. destruct (denm_exists s2 r2 B2 O2) as [psi D2].
  assert (Hn : nlevels s1 = nlevels s2) by (unfold nlevels; rewrite Hl; reflexivity).
  apply (count_reach_denm s1 s2 B1 B2 Hn r1 r2 phi D1).
  apply (denm_ext s2 r2 psi phi D2). intros c Hc.
  destruct (bchoice_is_asg s1 c H1 Hc) as [a Ha].
  rewrite (denm_at_asg s1 r1 phi c a H1 D1 Hc Ha), (denm_at_asg s2 r2 psi c a H2 D2 Hc).
  - symmetry. apply Heq.
  - intros l Hl0. unfold choice_of. rewrite <- Hl. apply Ha. rewrite Hn. exact Hl0.
Qed.

Section SpecM.
Variable gt : ref -> ref -> bool.
Variable C : Type.
Variable cget : C -> N -> list ref -> option ref.
Variable cadd : C -> N -> list ref -> ref -> C.
Hypothesis Hlossy : lossy cget cadd.
Variable cempty : C.
Hypothesis Hempty : forall k a, cget cempty k a = None.

Notation hstate_m := (hstate_m C).
Notation hstep_m := (hstep_m gt C cget cadd cempty).
Notation hrun_m := (hrun_m gt C cget cadd cempty).
Notation HInvM := (HInvM C cget).
Notation mhop_pre := (mhop_pre C).
Notation hframe_m := (hframe_m C).
Notation hpost_m := (hpost_m C).
Notation mholds := (mholds C).
Notation hinit_m := (hinit_m C cempty).
Notation step_ok := (hstep_m_ok gt C cget cadd Hlossy cempty Hempty).

Lemma mholds_ext : forall st d F F', mholds st d F -> mfeq F F' -> mholds st d F'.
Proof. intros st d F F' [r [E HF]] Hf. exists r. split; [exact E|]. intros a. rewrite HF. apply Hf. Qed.

Lemma mholds_slot : forall st d F r, mholds st d F -> mslot C st d = Some r -> mfeq (mfun_of (hm_s C st) r) F.
Proof. intros st d F r [r0 [E HF]] Er. rewrite E in Er. inversion Er; subst. exact HF. Qed.

Lemma mholds_occupied : forall st d F, mholds st d F -> moccupied C st d.
Proof. intros st d F [r [E _]]. exists r. exact E. Qed.

Inductive hspec_m (st : hstate_m) : mhop -> N -> (asg -> i64v) -> Prop :=
| MSpConst : forall d v, wf v -> hspec_m st (MHConst d v) d (fun _ => v)
| MSpVar : forall d v, v < nlevels (hm_s C st) ->
    hspec_m st (MHVar d v) d (fun a => if a v then i64_one else i64_zero)
| MSpBin : forall op d x y f g, mholds st x f -> mholds st y g ->
    hspec_m st (MHBin op d x y) d (fun a => mop_eval op (f a) (g a))
| MSpIte : forall d x y z f g h, mholds st x f -> mholds st y g -> mholds st z h ->
    hspec_m st (MHIte d x y z) d (fun a => if i64_is_zero (f a) then h a else g a)
| MSpRestrict : forall d x cube f V lits, mholds st x f ->
    mslot C st cube = Some V -> Cube (hm_s C st) V lits ->
    hspec_m st (MHRestrict d x cube) d (fun a => f (force_asg (hm_s C st) lits a))
| MSpClone : forall d x f, mholds st x f -> hspec_m st (MHClone d x) d f.

Lemma hspec_m_pre : forall st o d F, hspec_m st o d F -> mhop_pre st o.
Proof.
  intros st o d F S. destruct S; simpl; try assumption;
    try (repeat match goal with |- _ /\ _ => split end; eauto using mholds_occupied; fail).
Qed.

Lemma hspec_m_order : forall st o d F, hspec_m st o d F -> mchanges_order o = false.
Proof. intros st o d F S. destruct S; reflexivity. Qed.

(** (4) the destination holds the spec function, whatever happened before *)
Theorem hstep_m_spec : forall st o d F, HInvM st -> hspec_m st o d F ->
  exists st', hstep_m st o = Some st' /\ HInvM st' /\ hframe_m st o st' /\ mholds st' d F.
Proof.
  intros st o d F I S. pose proof (hspec_m_pre st o d F S) as Pre.
  destruct (step_ok st o I Pre) as [st' [E [I' [Fr P]]]].
  exists st'. split; [exact E|]. split; [exact I'|]. split; [exact Fr|].
  pose proof (mo_wf _ (hmi_ok C cget st I)) as Hwf.
  destruct S; simpl in P.
  - exact P.
  - exact P.
  - destruct P as [f0 [g0 [E0 [E1 P]]]]. apply (mholds_ext _ _ _ _ P).
    intros a. rewrite (mholds_slot st x f f0 H E0 a), (mholds_slot st y g g0 H0 E1 a). reflexivity.
  - destruct P as [f0 [g0 [h0 [E0 [E1 [E2 P]]]]]]. apply (mholds_ext _ _ _ _ P).
    intros a. rewrite (mholds_slot st x f f0 H E0 a), (mholds_slot st y g g0 H0 E1 a),
      (mholds_slot st z h h0 H1 E2 a). reflexivity.
  - destruct P as [f0 [V0 [E0 [E1 P]]]]. rewrite H0 in E1. inversion E1; subst V0.
    apply (mholds_ext _ _ _ _ (P lits H1)). intros a. apply (mholds_slot st x f f0 H E0).
  - destruct P as [Eg [r' Er']]. destruct H as [r [Er HF]].
    exists r. assert (Er2 : mslot C st' d = Some r).
    { unfold mslot in *. rewrite Eg. exact Er. }
    split; [exact Er2|]. intros a. destruct Fr as [_ [F2 _]].
    rewrite (proj2 (F2 r (mslot_root C st x r Er)) a). apply HF.
Qed.

(** in one manager the returned edge is THE edge with that function *)
Theorem histm_result_unique : forall st o d F st', HInvM st -> hspec_m st o d F -> hstep_m st o = Some st' ->
  forall y, mholds st' y F ->
  hget (s_handles (hm_s C st')) y = hget (s_handles (hm_s C st')) d.
Proof.
  intros st o d F st' I S E y Hy.
  destruct (hstep_m_spec st o d F I S) as [st1 [E1 [I1 [_ Hd]]]]. rewrite E in E1. inversion E1; subst st1.
  destruct Hy as [ry [Ey Fy]]. destruct Hd as [rd [Ed Fd]]. unfold mslot in Ey, Ed.
  destruct (hget (s_handles (hm_s C st')) y) as [ey|] eqn:Gy; [|discriminate].
  destruct (hget (s_handles (hm_s C st')) d) as [ed|] eqn:Gd; [|discriminate].
  inversion Ey; subst ry. inversion Ed; subst rd. f_equal.
  apply (hinvm_canonical C cget st' I1 y d ey ed Gy Gd). intros a. rewrite Fy, Fd. reflexivity.
Qed.

End SpecM.

(** ** Two managers *)

Section TwoM.
Variables gt1 gt2 : ref -> ref -> bool.
Variables C1 C2 : Type.
Variable cget1 : C1 -> N -> list ref -> option ref.
Variable cadd1 : C1 -> N -> list ref -> ref -> C1.
Variable cget2 : C2 -> N -> list ref -> option ref.
Variable cadd2 : C2 -> N -> list ref -> ref -> C2.
Hypothesis L1 : lossy cget1 cadd1.
Hypothesis L2 : lossy cget2 cadd2.
Variable ce1 : C1.
Variable ce2 : C2.
Hypothesis He1 : forall k a, cget1 ce1 k a = None.
Hypothesis He2 : forall k a, cget2 ce2 k a = None.

Notation step1 := (hstep_m gt1 C1 cget1 cadd1 ce1).
Notation step2 := (hstep_m gt2 C2 cget2 cadd2 ce2).

(** the result is determined by the spec function and the variable order:
    same function, same node count, in any two managers *)
Theorem histm_result_determined : forall st1 st2 o1 o2 d1 d2 F st1' st2',
  HInvM C1 cget1 st1 -> HInvM C2 cget2 st2 ->
  s_l2v (hm_s C1 st1) = s_l2v (hm_s C2 st2) -> s_v2l (hm_s C1 st1) = s_v2l (hm_s C2 st2) ->
  hspec_m C1 st1 o1 d1 F -> hspec_m C2 st2 o2 d2 F ->
  step1 st1 o1 = Some st1' -> step2 st2 o2 = Some st2' ->
  exists r1 r2, mslot C1 st1' d1 = Some r1 /\ mslot C2 st2' d2 = Some r2 /\
    (forall a, mfun_of (hm_s C1 st1') r1 a = F a) /\
    (forall a, mfun_of (hm_s C2 st2') r2 a = F a) /\
    count_reach (hm_s C1 st1') (E r1) = count_reach (hm_s C2 st2') (E r2).
Proof.
  intros st1 st2 o1 o2 d1 d2 F st1' st2' I1 I2 Hl Hv S1 S2 E1 E2.
  destruct (hstep_m_spec gt1 C1 cget1 cadd1 L1 ce1 He1 st1 o1 d1 F I1 S1) as [sa [Ea [Ia [Fa Ha]]]].
  destruct (hstep_m_spec gt2 C2 cget2 cadd2 L2 ce2 He2 st2 o2 d2 F I2 S2) as [sb [Eb [Ib [Fb Hb]]]].
  rewrite E1 in Ea. inversion Ea; subst sa. rewrite E2 in Eb. inversion Eb; subst sb.
  destruct Ha as [r1 [Er1 F1]]. destruct Hb as [r2 [Er2 F2]].
  exists r1, r2. split; [exact Er1|]. split; [exact Er2|]. split; [exact F1|]. split; [exact F2|].
  pose proof (hspec_m_order C1 st1 o1 d1 F S1) as Hco1.
  pose proof (hspec_m_order C2 st2 o2 d2 F S2) as Hco2.
  destruct (proj2 (proj2 Fa) Hco1) as [La Va]. destruct (proj2 (proj2 Fb) Hco2) as [Lb Vb].
  apply same_mfun_same_count.
  - apply (hmi_ok C1 cget1 st1' Ia).
  - apply (hmi_ok C2 cget2 st2' Ib).
  - rewrite La, Lb. exact Hl.
  - rewrite Va, Vb. exact Hv.
  - apply (mslot_ok C1 cget1 st1' d1 r1 Ia Er1).
  - apply (mslot_ok C2 cget2 st2' d2 r2 Ib Er2).
  - intros a. rewrite F1, F2. reflexivity.
Qed.

(** C08 "as on a freshly built diagram" *)
Theorem histm_fresh_equiv : forall n1 n2 ops1 ops2 st1 st2 o1 o2 d1 d2 F,
  mhops_pre gt1 C1 cget1 cadd1 ce1 (hinit_m C1 ce1 n1) ops1 ->
  hrun_m gt1 C1 cget1 cadd1 ce1 (hinit_m C1 ce1 n1) ops1 = Some st1 ->
  mhops_pre gt2 C2 cget2 cadd2 ce2 (hinit_m C2 ce2 n2) ops2 ->
  hrun_m gt2 C2 cget2 cadd2 ce2 (hinit_m C2 ce2 n2) ops2 = Some st2 ->
  s_l2v (hm_s C1 st1) = s_l2v (hm_s C2 st2) -> s_v2l (hm_s C1 st1) = s_v2l (hm_s C2 st2) ->
  hspec_m C1 st1 o1 d1 F -> hspec_m C2 st2 o2 d2 F ->
  exists st1' st2' r1 r2,
    step1 st1 o1 = Some st1' /\ step2 st2 o2 = Some st2' /\
    mslot C1 st1' d1 = Some r1 /\ mslot C2 st2' d2 = Some r2 /\
    (forall a, mfun_of (hm_s C1 st1') r1 a = F a) /\
    (forall a, mfun_of (hm_s C2 st2') r2 a = F a) /\
    count_reach (hm_s C1 st1') (E r1) = count_reach (hm_s C2 st2') (E r2) /\
    wf_b (hm_s C1 st1') = true /\ wf_b (hm_s C2 st2') = true.
Proof.
  intros n1 n2 ops1 ops2 st1 st2 o1 o2 d1 d2 F P1 R1 P2 R2 Hl Hv S1 S2.
  assert (I1 : HInvM C1 cget1 st1).
  { apply (hreach_m_inv gt1 C1 cget1 cadd1 L1 ce1 He1 n1). exists ops1. auto. }
  assert (I2 : HInvM C2 cget2 st2).
  { apply (hreach_m_inv gt2 C2 cget2 cadd2 L2 ce2 He2 n2). exists ops2. auto. }
  destruct (hstep_m_spec gt1 C1 cget1 cadd1 L1 ce1 He1 st1 o1 d1 F I1 S1) as [sa [Ea [Ia _]]].
  destruct (hstep_m_spec gt2 C2 cget2 cadd2 L2 ce2 He2 st2 o2 d2 F I2 S2) as [sb [Eb [Ib _]]].
  destruct (histm_result_determined st1 st2 o1 o2 d1 d2 F sa sb I1 I2 Hl Hv S1 S2 Ea Eb)
    as [r1 [r2 [A1 [A2 [A3 [A4 A5]]]]]].
  exists sa, sb, r1, r2. repeat (split; [assumption|]).
  split; apply wf_b_spec; [apply (mo_wf _ (hmi_ok C1 cget1 sa Ia)) | apply (mo_wf _ (hmi_ok C2 cget2 sb Ib))].
Qed.

End TwoM.
