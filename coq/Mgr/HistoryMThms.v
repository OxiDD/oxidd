(** * Theorems about ALL histories of the MTBDD manager state machine (Mgr/HistoryM.v)

    For every configuration (operand order [gt], cache implementation
    [C]/[cget]/[cadd] that is [lossy], its cleared state [cempty]), every
    number [n] of initial variables and every history (list of [mhop]) of
    well-formed requests from the empty MTBDD manager [hinit_m n]:

    - [hrun_m_ok], [hreach_m_inv]: the run never gets stuck and every state it
      passes satisfies [HInvM];
    - [histm_wf]: the table after ANY history passes the checkers [wf_b] and
      [mt_ok_b] (C03; in particular: terminal values pairwise distinct, no
      dangling terminal after a collection);
    - [histm_canonical]: two slots hold the same edge IFF they denote the same
      function of the variables (C01);
    - [histm_frame_slots], [histm_slot_stable], [histm_handle_function_fixed],
      [histm_add_vars] (C16), [histm_reorder_keeps] (C08): a call changes neither
      the edge nor the function of any slot other than its destination;
    - [histm_gc]: a collection keeps every slot and its function, every kept
      node / terminal is one of the old table and is referenced;
    - [mhop_pre_b_sound], [hrun_m_checked]: the executable request checker. *)

From Coq Require Import List NArith ZArith PArith Bool Arith Lia FMapPositive.
From OxiVerif Require Import DD.Table DD.TableProofs DD.Sem DD.Build DD.BuildProofs
  DD.Apply DD.ApplyProofs DD.ApplyEvalProofs DD.ConfigApply DD.ConfigInsert DD.ConfigRun DD.FamSpecProofs
  Num.I64 Num.I64Proofs DD.ApplyMtbdd DD.ApplyMtbddBase DD.ApplyMtbddProofs DD.ApplyMtbddTop
  Mgr.SortOrder Mgr.SortOrderProofs Mgr.LevelSwap Mgr.LevelSwapOrder
  Mgr.History Mgr.HistoryBase Mgr.HistoryM Mgr.HistoryMBase Mgr.HistoryMProofs.
Import ListNotations.

Local Arguments hset : simpl never.
Local Arguments hget : simpl never.
Local Arguments hdel : simpl never.
Local Arguments mfun_of : simpl never.
Local Arguments gc_model_m : simpl never.
Local Arguments set_var_order_model : simpl never.
Local Arguments cube_lits : simpl never.

(** ** The empty manager *)

Lemma emptym_wf : forall n, WF (empty_snap_m n).
Proof. intros n. apply empty_wf_gen; constructor. Qed.

Lemma emptym_ok : forall n, MtOK (empty_snap_m n).
Proof.
  intros n. constructor; [apply emptym_wf | reflexivity|].
  intros t c E. discriminate.
Qed.

Section ThmsM.
Variable gt : ref -> ref -> bool.
Variable C : Type.
Variable cget : C -> N -> list ref -> option ref.
Variable cadd : C -> N -> list ref -> ref -> C.
Hypothesis Hlossy : lossy cget cadd.
Variable cempty : C.
Hypothesis Hempty : forall k a, cget cempty k a = None.

Notation hstate_m := (hstate_m C).
Notation hstep_m := (hstep_m gt C cget cadd cempty).
Notation hrun_m := (hrun_m gt C cget cadd cempty).
Notation HInvM := (HInvM C cget).
Notation mhop_pre := (mhop_pre C).
Notation hframe_m := (hframe_m C).
Notation hpost_m := (hpost_m C).
Notation mholds := (mholds C).
Notation mroot := (mroot C).
Notation hinit_m := (hinit_m C cempty).
Notation step_ok := (hstep_m_ok gt C cget cadd Hlossy cempty Hempty).

(** the invariant, spelled out *)
Theorem hinvm_unfold : forall st : hstate_m,
  HInvM st <-> (MtOK (hm_s C st) /\ MCacheOK cget (hm_s C st) (hm_c C st)).
Proof.
  intros st. split.
  - intros [A B]. auto.
  - intros [A B]. constructor; assumption.
Qed.

Theorem hinit_m_inv : forall n, HInvM (hinit_m n).
Proof.
  intros n. constructor; simpl; [apply emptym_ok | apply (mok_empty C cget cempty Hempty)].
Qed.

(** ** Runs *)

Fixpoint mhops_pre (st : hstate_m) (ops : list mhop) : Prop :=
  match ops with
  | [] => True
  | o :: rest => mhop_pre st o /\ forall st1, hstep_m st o = Some st1 -> mhops_pre st1 rest
  end.

Lemma hstep_m_inv : forall st o, HInvM st -> mhop_pre st o -> exists st', hstep_m st o = Some st' /\ HInvM st'.
Proof. intros st o I0 P. destruct (step_ok st o I0 P) as [st' [E [I' _]]]. exists st'. auto. Qed.

Theorem hrun_m_ok : forall ops st, HInvM st -> mhops_pre st ops ->
  exists st', hrun_m st ops = Some st' /\ HInvM st'.
Proof. exact (run_ok _ _ hstep_m HInvM mhop_pre hstep_m_inv). Qed.

(** the states a client can bring an MTBDD manager with [n] initial variables into *)
Definition hreach_m (n : nat) (st : hstate_m) : Prop :=
  exists ops, mhops_pre (hinit_m n) ops /\ hrun_m (hinit_m n) ops = Some st.

Theorem hreach_m_init : forall n, hreach_m n (hinit_m n).
Proof. intros n. exists []. split; [exact I | reflexivity]. Qed.

Theorem hreach_m_inv : forall n st, hreach_m n st -> HInvM st.
Proof. intros n st. exact (reach_inv _ _ hstep_m HInvM mhop_pre hstep_m_inv (hinit_m n) st (hinit_m_inv n)). Qed.

Theorem hreach_m_step : forall n st o st', hreach_m n st -> mhop_pre st o -> hstep_m st o = Some st' ->
  hreach_m n st'.
Proof. intros n. exact (reach_step _ _ hstep_m mhop_pre (hinit_m n)). Qed.

(** (1) no well-formed request ever gets stuck, from any reachable state *)
Theorem histm_progress : forall n st o, hreach_m n st -> mhop_pre st o ->
  exists st', hstep_m st o = Some st' /\ hreach_m n st' /\ hframe_m st o st' /\ hpost_m st o st'.
Proof.
  intros n st o R Pre. destruct (step_ok st o (hreach_m_inv n st R) Pre) as [st' [E [_ [F P]]]].
  exists st'. split; [exact E|]. split; [apply (hreach_m_step n st o st' R Pre E)|]. auto.
Qed.

(** (1) C03: after any history the table passes the structural checkers *)
Theorem histm_wf : forall n st, hreach_m n st ->
  wf_b (hm_s C st) = true /\ mt_ok_b (hm_s C st) = true.
Proof.
  intros n st R. pose proof (hmi_ok C cget st (hreach_m_inv n st R)) as B.
  split; [apply wf_b_spec; apply (mo_wf _ B) | apply mt_ok_b_spec; exact B].
Qed.

(** ** Canonicity *)

Theorem hinvm_canonical : forall st, HInvM st ->
  forall x y ex ey, hget (s_handles (hm_s C st)) x = Some ex -> hget (s_handles (hm_s C st)) y = Some ey ->
  (ex = ey <-> forall a, mfun_of (hm_s C st) (eref ex) a = mfun_of (hm_s C st) (eref ey) a).
Proof.
  intros st I x y ex ey Ex Ey. pose proof (hmi_ok C cget st I) as B.
  destruct (m_handle_ok _ (x, ex) B (hget_In _ _ _ Ex)) as [Ox Tx].
  destruct (m_handle_ok _ (y, ey) B (hget_In _ _ _ Ey)) as [Oy Ty]. simpl in *.
  split; [intros ->; reflexivity|]. intros Heq.
  apply edge_ext; [|congruence]. apply (mfun_canon _ _ _ B Ox Oy Heq).
Qed.

(** (2) C01: after any history, two slots hold the same edge iff they denote
    the same function (value table) of the manager's variables *)
Theorem histm_canonical : forall n st, hreach_m n st ->
  forall x y ex ey, hget (s_handles (hm_s C st)) x = Some ex -> hget (s_handles (hm_s C st)) y = Some ey ->
  (ex = ey <-> forall a, mfun_of (hm_s C st) (eref ex) a = mfun_of (hm_s C st) (eref ey) a).
Proof. intros n st R. apply hinvm_canonical. apply (hreach_m_inv n st R). Qed.

(** ** The frame, slot by slot *)

Theorem histm_frame_slots : forall st o st', HInvM st -> mhop_pre st o -> hstep_m st o = Some st' ->
  forall x e, mhdst o <> Some x -> hget (s_handles (hm_s C st)) x = Some e ->
  hget (s_handles (hm_s C st')) x = Some e /\
  ref_ok (hm_s C st') (eref e) /\
  forall a, mfun_of (hm_s C st') (eref e) a = mfun_of (hm_s C st) (eref e) a.
Proof.
  intros st o st' I Pre E x e Hx Eg. destruct (step_ok st o I Pre) as [st1 [E1 [_ [[F1 [F2 _]] _]]]].
  rewrite E in E1. inversion E1; subst st1. split; [rewrite (F1 x Hx); exact Eg|].
  apply F2. exists (x, e). split; [apply hget_In; exact Eg | reflexivity].
Qed.

(** (3) along a whole history *)
Theorem histm_slot_stable : forall ops st st', HInvM st -> mhops_pre st ops -> hrun_m st ops = Some st' ->
  forall x e, (forall o, In o ops -> mhdst o <> Some x) ->
  hget (s_handles (hm_s C st)) x = Some e ->
  hget (s_handles (hm_s C st')) x = Some e /\
  ref_ok (hm_s C st') (eref e) /\
  forall a, mfun_of (hm_s C st') (eref e) a = mfun_of (hm_s C st) (eref e) a.
Proof.
  induction ops as [|o rest IH]; intros st st' I Pre E x e Hx Eg.
  - simpl in E. inversion E; subst st'. split; [exact Eg|]. split; [|reflexivity].
    apply (m_handle_ok _ (x, e) (hmi_ok C cget st I) (hget_In _ _ _ Eg)).
  - destruct Pre as [P0 Prest]. simpl in E.
    destruct (step_ok st o I P0) as [st1 [E1 [I1 _]]]. rewrite E1 in E.
    destruct (histm_frame_slots st o st1 I P0 E1 x e (Hx o (or_introl eq_refl)) Eg) as [G1 [_ F1]].
    destruct (IH st1 st' I1 (Prest st1 E1) E x e (fun o' Ho => Hx o' (or_intror Ho)) G1) as [G2 [O2 F2]].
    split; [exact G2|]. split; [exact O2|]. intros a. rewrite F2. apply F1.
Qed.

(** (3) C16 along a whole history: however many variables are added meanwhile
    (and whatever else happens), an existing handle denotes the function it
    denoted, which reads only the variables that existed then *)
Theorem histm_handle_function_fixed : forall ops st st', HInvM st -> mhops_pre st ops -> hrun_m st ops = Some st' ->
  forall x e, (forall o, In o ops -> mhdst o <> Some x) ->
  hget (s_handles (hm_s C st)) x = Some e ->
  hget (s_handles (hm_s C st')) x = Some e /\
  forall a a', (forall v, v < nlevels (hm_s C st) -> a v = a' v) ->
    mfun_of (hm_s C st') (eref e) a = mfun_of (hm_s C st) (eref e) a'.
Proof.
  intros ops st st' I Pre E x e Hx Eg.
  destruct (histm_slot_stable ops st st' I Pre E x e Hx Eg) as [G [_ F]].
  split; [exact G|]. intros a a' Hag. rewrite F.
  apply (mfun_of_local _ _ a a' (mo_wf _ (hmi_ok C cget st I)) Hag).
Qed.

(** (3) C16: [add_vars] changes no node, no terminal, no slot, and every
    function of the old table is the old function, which ignores the new variables *)
Theorem histm_add_vars : forall st k st', HInvM st -> hstep_m st (MHAddVars k) = Some st' ->
  HInvM st' /\
  nlevels (hm_s C st') = nlevels (hm_s C st) + k /\
  s_nodes (hm_s C st') = s_nodes (hm_s C st) /\
  s_terms (hm_s C st') = s_terms (hm_s C st) /\
  s_handles (hm_s C st') = s_handles (hm_s C st) /\
  (forall v, v < nlevels (hm_s C st) -> nth_error (s_v2l (hm_s C st')) v = nth_error (s_v2l (hm_s C st)) v) /\
  (forall i, i < k -> nth_error (s_v2l (hm_s C st')) (nlevels (hm_s C st) + i) = Some (nlevels (hm_s C st) + i)) /\
  forall r, ref_ok (hm_s C st) r ->
    ref_ok (hm_s C st') r /\
    forall a a', (forall v, v < nlevels (hm_s C st) -> a v = a' v) ->
      mfun_of (hm_s C st') r a = mfun_of (hm_s C st) r a'.
Proof.
  intros st k st' I E. destruct (step_ok st (MHAddVars k) I Logic.I) as [st1 [E1 [I1 _]]].
  rewrite E in E1. inversion E1; subst st1. split; [exact I1|].
  simpl in E. inversion E; subst st'. clear E E1. simpl.
  pose proof (mo_wf _ (hmi_ok C cget st I)) as H.
  assert (Lv : length (s_v2l (hm_s C st)) = nlevels (hm_s C st)) by (apply (wf_perm_len _ H)).
  rewrite widen_add_vars. split; [apply widen_nlevels|]. split; [reflexivity|]. split; [reflexivity|].
  split; [reflexivity|]. split; [|split].
  - intros v Hv. simpl. apply nth_error_app1. lia.
  - intros i Hi. simpl. rewrite (nth_error_app_seq _ _ k _ Lv).
    destruct (Nat.ltb_spec (nlevels (hm_s C st) + i) (nlevels (hm_s C st))); [lia|].
    destruct (Nat.ltb_spec (nlevels (hm_s C st) + i) (nlevels (hm_s C st) + k)); [reflexivity | lia].
  - intros r Ok. split; [apply ref_ok_widen; exact Ok|]. intros a a' Hag.
    rewrite (mfun_of_widen _ _ _ r a H Ok). apply (mfun_of_local _ r a a' H Hag).
Qed.

(** (3) C08: [set_var_order] changes no slot, no terminal and no function of the
    variables, and establishes the requested relative order *)
Theorem histm_reorder_keeps : forall st order st', HInvM st ->
  mhop_pre st (MHSetVarOrder order) -> hstep_m st (MHSetVarOrder order) = Some st' ->
  HInvM st' /\
  nlevels (hm_s C st') = nlevels (hm_s C st) /\
  s_handles (hm_s C st') = s_handles (hm_s C st) /\
  s_terms (hm_s C st') = s_terms (hm_s C st) /\
  (forall x e, hget (s_handles (hm_s C st)) x = Some e ->
     ref_ok (hm_s C st') (eref e) /\
     forall a, mfun_of (hm_s C st') (eref e) a = mfun_of (hm_s C st) (eref e) a) /\
  (forall a b, a < b < length order ->
     nth (nth a order 0) (s_v2l (hm_s C st')) 0 < nth (nth b order 0) (s_v2l (hm_s C st')) 0).
Proof.
  intros st order st' I Pre E. destruct (step_ok st _ I Pre) as [st1 [E1 [I1 [[_ [F2 _]] P]]]].
  rewrite E in E1. inversion E1; subst st1. simpl in P. destruct P as [P1 [P2 [P3 P4]]].
  split; [exact I1|]. split; [exact P1|]. split; [exact P2|]. split; [exact P3|]. split; [|exact P4].
  intros x e Eg. apply F2. exists (x, e). split; [apply hget_In; exact Eg | reflexivity].
Qed.

(** (3) C05 / C14 view: a collection keeps every slot and its function; whatever
    it keeps was there before and is referenced; the cache is emptied *)
Theorem histm_gc : forall st st', HInvM st -> hstep_m st MHGc = Some st' ->
  HInvM st' /\
  s_handles (hm_s C st') = s_handles (hm_s C st) /\
  (forall x e, hget (s_handles (hm_s C st)) x = Some e ->
     ref_ok (hm_s C st') (eref e) /\
     forall a, mfun_of (hm_s C st') (eref e) a = mfun_of (hm_s C st) (eref e) a) /\
  (forall id nd, find_node (hm_s C st') id = Some nd ->
     find_node (hm_s C st) id = Some nd /\ exists r, mroot st r /\ reachable (hm_s C st) [r] (RN id)) /\
  (forall t c, term_val (hm_s C st') t = Some c ->
     term_val (hm_s C st) t = Some c /\
     (mroot st (RT t) \/
      exists id nd e, find_node (hm_s C st') id = Some nd /\ In e (nchildren nd) /\ eref e = RT t)).
Proof.
  intros st st' I E. destruct (step_ok st MHGc I Logic.I) as [st1 [E1 [I1 [[_ [F2 _]] P]]]].
  rewrite E in E1. inversion E1; subst st1. simpl in P. destruct P as [P1 P2].
  split; [exact I1|]. split; [|split; [|split; [exact P1 | exact P2]]].
  - simpl in E. inversion E; subst st'. simpl. apply (mgc_facts _ (hmi_ok C cget st I)).
  - intros x e Eg. apply F2. exists (x, e). split; [apply hget_In; exact Eg | reflexivity].
Qed.

(** ** The request checker *)

Lemma moccupied_b_spec : forall st k, moccupied_b C st k = true <-> moccupied C st k.
Proof.
  intros st k. unfold moccupied_b, moccupied. destruct (mslot C st k) as [r|].
  - split; [eauto | reflexivity].
  - split; [discriminate | intros [r E]; discriminate].
Qed.

Theorem mhop_pre_b_sound : forall st o, HInvM st -> mhop_pre_b C st o = true -> mhop_pre st o.
Proof.
  intros st o I. pose proof (hmi_ok C cget st I) as B.
  destruct o; simpl; try (intros _; exact Logic.I);
    try (intros Hb; repeat (apply andb_true_iff in Hb; destruct Hb as [Hb ?]);
         repeat split; first [apply moccupied_b_spec | apply Nat.ltb_lt]; assumption).
  - (* MHConst *) apply wfb_true.
  - (* MHRestrict *)
    intros Hb. apply andb_true_iff in Hb. destruct Hb as [A Hb]. split; [apply moccupied_b_spec; exact A|].
    destruct (mslot C st cube) as [vs|] eqn:Ev; [|discriminate Hb].
    destruct (cube_lits (S (nlevels (hm_s C st))) (hm_s C st) vs) as [lits|] eqn:El; [|discriminate Hb].
    exists vs, lits. split; [reflexivity|]. apply (cube_lits_sound _ B _ vs lits El).
  - (* MHSetVarOrder *)
    rewrite SortOrderProofs.order_ok_b_valid. unfold SortOrderProofs.valid_order. tauto.
Qed.

Theorem mhops_pre_b_sound : forall ops st, HInvM st ->
  mhops_pre_b gt C cget cadd cempty st ops = true -> mhops_pre st ops.
Proof.
  exact (pres_b_sound _ _ hstep_m HInvM mhop_pre (mhop_pre_b C)
           (step_inv_keeps _ _ hstep_m HInvM mhop_pre hstep_m_inv) mhop_pre_b_sound).
Qed.

(** a history accepted by the checker runs to completion, in a reachable state *)
Theorem hrun_m_checked : forall n ops, mhops_pre_b gt C cget cadd cempty (hinit_m n) ops = true ->
  exists st, hrun_m (hinit_m n) ops = Some st /\ hreach_m n st.
Proof.
  intros n ops Hb.
  exact (run_reach _ _ hstep_m HInvM mhop_pre hstep_m_inv (hinit_m n) ops (hinit_m_inv n)
           (mhops_pre_b_sound ops _ (hinit_m_inv n) Hb)).
Qed.

End ThmsM.
