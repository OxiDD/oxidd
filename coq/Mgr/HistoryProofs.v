(** * The invariant of the manager state machine and its preservation by every call

    [HInv st]: the table is a well-formed BDD table with both terminals
    ([BddOK], which includes: every handle slot refers to a stored node or
    terminal), the apply cache serves only correct entries for all operator
    kinds ([QCacheOK]), every substitution object names existing variables
    (each once) and stored functions, and the id counter is above all ids in
    use.

    [hstep_ok]: for every state satisfying [HInv], every configuration
    (operand order [gt], any [lossy] cache with any content that satisfies the
    cache invariant) and every well-formed request ([hop_pre]: the operand
    slots are occupied, variables exist, a requested order names no variable
    twice), the call
    - runs to completion ([hstep] is not [None]: none of the code's [unwrap]s fires),
    - re-establishes [HInv],
    - [hframe]: changes no slot other than its destination, and every function
      held by a slot or by a substitution object before the call is still
      stored and denotes the same function of the variables,
    - [hpost]: leaves in its destination the spec function (DD/Sem.v) of the
      operands' functions at the time of the call. *)

From Coq Require Import List NArith PArith Bool Arith Lia FMapPositive.
From OxiVerif Require Import DD.Table DD.TableProofs DD.Canon DD.Sem DD.Build DD.BuildProofs
  DD.Apply DD.ApplyProofs DD.ApplyEvalProofs DD.ConfigApply DD.ConfigRun
  DD.Quant DD.QuantSpecProofs DD.QuantLemmas DD.QuantProofs DD.RestrictProofs DD.SubstProofs
  DD.ApplyQuantProofs DD.QuantTopProofs
  DD.FamSpecProofs Mgr.SortOrder Mgr.SortOrderProofs Mgr.LevelSwap Mgr.LevelSwapOrder Mgr.OomGc
  Mgr.History Mgr.HistoryBase Mgr.HistoryGc Mgr.HistoryReorder.
Import ListNotations.

Local Arguments hset : simpl never.
Local Arguments hget : simpl never.
Local Arguments hdel : simpl never.
Local Arguments bfun_of : simpl never.

Definition hpairs_wf (s : snap) (pairs : hpairs) : Prop :=
  NoDup (map fst pairs) /\ forall v r, In (v, r) pairs -> v < nlevels s /\ ref_ok s r.

Lemma hreg_fn_In : forall reg id pairs, hreg_fn reg id = Some pairs -> In (id, pairs) reg.
Proof.
  induction reg as [|[i p] r IH]; intros id pairs E; simpl in E; [discriminate|].
  destruct (N.eqb_spec id i) as [->|Hne]; [inversion E; subst; left; reflexivity | right; auto].
Qed.

Lemma reg_roots_In : forall reg h,
  In h (reg_roots reg) <-> exists id pairs v r, In (id, pairs) reg /\ In (v, r) pairs /\ h = (id, E r).
Proof.
  intros reg h. unfold reg_roots. rewrite in_flat_map. split.
  - intros [[id pairs] [Hin Hm]]. simpl in Hm. apply in_map_iff in Hm. destruct Hm as [[v r] [<- Hp]].
    exists id, pairs, v, r. auto.
  - intros [id [pairs [v [r [Hin [Hp ->]]]]]]. exists (id, pairs). split; [exact Hin|].
    simpl. apply in_map_iff. exists (v, r). auto.
Qed.

Section Hist.
Variable gt : ref -> ref -> bool.
Variable C : Type.
Variable cget : C -> N -> list ref -> option ref.
Variable cadd : C -> N -> list ref -> ref -> C.
Hypothesis Hlossy : lossy cget cadd.
Variable cempty : C.
Hypothesis Hempty : forall k a, cget cempty k a = None.

Notation hstate := (hstate C).
Notation hstep := (hstep gt C cget cadd cempty).
Notation hrun := (hrun gt C cget cadd cempty).
Notation mkH := (mkH C).
Notation QOK reg := (QCacheOK cget (hreg_fn reg)).

Record HInv (st : hstate) : Prop := mkHInv {
  hi_bdd : BddOK (h_s C st);
  hi_cache : QOK (h_reg C st) (h_s C st) (h_c C st);
  hi_reg : forall id pairs, In (id, pairs) (h_reg C st) -> hpairs_wf (h_s C st) pairs;
  hi_fresh : forall id pairs, In (id, pairs) (h_reg C st) -> (id < h_next C st)%N
}.

(** everything a client still holds: the edges in the slots and the
    replacement functions inside the substitution objects *)
Definition hroot (st : hstate) (r : ref) : Prop :=
  (exists h, In h (s_handles (h_s C st)) /\ eref (snd h) = r) \/
  (exists id pairs v, In (id, pairs) (h_reg C st) /\ In (v, r) pairs).

Lemma hroot_ok : forall st r, HInv st -> hroot st r -> ref_ok (h_s C st) r.
Proof.
  intros st r I [[h [Hin <-]]|[id [pairs [v [Hin Hp]]]]].
  - apply (wf_handles _ (bo_wf _ (hi_bdd st I)) h Hin).
  - apply (proj2 (hi_reg st I id pairs Hin) v r Hp).
Qed.

Lemma hslot_root : forall st k r, hslot C st k = Some r -> hroot st r.
Proof.
  intros st k r E. unfold hslot in E.
  destruct (hget (s_handles (h_s C st)) k) as [e|] eqn:Eg; [|discriminate]. inversion E; subst.
  left. exists (k, e). split; [apply hget_In; exact Eg | reflexivity].
Qed.

Lemma hslot_ok : forall st k r, HInv st -> hslot C st k = Some r -> ref_ok (h_s C st) r.
Proof. intros st k r I E. apply (hroot_ok st r I). apply (hslot_root st k r E). Qed.

Lemma qok_empty : forall reg s, QOK reg s cempty.
Proof. intros reg s. split; intros code args r E; rewrite Hempty in E; discriminate. Qed.

Lemma pairs_range : forall st, HInv st ->
  forall id pairs, hreg_fn (h_reg C st) id = Some pairs -> pairs_in_range (h_s C st) pairs.
Proof.
  intros st I id pairs E v r Hin.
  apply (proj2 (hi_reg st I id pairs (hreg_fn_In _ _ _ E)) v r Hin).
Qed.

(** ** Well-formed requests *)

Definition occupied (st : hstate) (k : N) : Prop := exists r, hslot C st k = Some r.

Definition hop_pre (st : hstate) (o : hop) : Prop :=
  match o with
  | HConst _ _ => True
  | HVar _ v _ => v < nlevels (h_s C st)
  | HNot _ a => occupied st a
  | HBin _ _ a b => occupied st a /\ occupied st b
  | HIte _ a b c => occupied st a /\ occupied st b /\ occupied st c
  | HQuant _ _ a vars => occupied st a /\ occupied st vars
  | HApplyQuant _ _ _ a b vars => occupied st a /\ occupied st b /\ occupied st vars
  | HRestrict _ a cube => occupied st a /\ occupied st cube
  | HNewSubst pairs =>
    NoDup (map fst pairs) /\
    forall v k, In (v, k) pairs -> v < nlevels (h_s C st) /\ occupied st k
  | HSubst _ a id => occupied st a /\ exists pairs, hreg_fn (h_reg C st) id = Some pairs
  | HClone _ a => occupied st a
  | HDrop _ => True
  | HGc => True
  | HAddVars _ => True
  | HSetVarOrder order => NoDup order /\ Forall (fun v => v < nlevels (h_s C st)) order
  end.

(** ** The frame *)

Definition order_same (s s' : snap) : Prop := s_l2v s' = s_l2v s /\ s_v2l s' = s_v2l s.

Definition changes_order (o : hop) : bool :=
  match o with HAddVars _ | HSetVarOrder _ => true | _ => false end.

Definition hframe (st : hstate) (o : hop) (st' : hstate) : Prop :=
  (forall x, hdst o <> Some x ->
     hget (s_handles (h_s C st')) x = hget (s_handles (h_s C st)) x) /\
  (forall r, hroot st r ->
     ref_ok (h_s C st') r /\ forall a, bfun_of (h_s C st') r a = bfun_of (h_s C st) r a) /\
  (changes_order o = false -> order_same (h_s C st) (h_s C st')).

(** ** What the destination holds afterwards *)

Definition holds (st : hstate) (d : N) (F : bfun) : Prop :=
  exists r, hslot C st d = Some r /\ forall a, bfun_of (h_s C st) r a = F a.

Definition hpost (st : hstate) (o : hop) (st' : hstate) : Prop :=
  let s := h_s C st in
  match o with
  | HConst d b => holds st' d (const_s b)
  | HVar d v neg => holds st' d (fun a => xorb neg (var_s v a))
  | HNot d x =>
    exists f, hslot C st x = Some f /\ holds st' d (lift1 negb (bfun_of s f))
  | HBin op d x y =>
    exists f g, hslot C st x = Some f /\ hslot C st y = Some g /\
      holds st' d (lift2 op (bfun_of s f) (bfun_of s g))
  | HIte d x y z =>
    exists f g h, hslot C st x = Some f /\ hslot C st y = Some g /\ hslot C st z = Some h /\
      holds st' d (ite_s (bfun_of s f) (bfun_of s g) (bfun_of s h))
  | HQuant q d x vars =>
    exists f V, hslot C st x = Some f /\ hslot C st vars = Some V /\
      forall vs, (forall v, In v vs -> v < nlevels s) -> is_varset s V vs -> (q = QUnique -> NoDup vs) ->
        holds st' d (quant (qfun q) vs (bfun_of s f))
  | HApplyQuant q op d x y vars =>
    exists f g V, hslot C st x = Some f /\ hslot C st y = Some g /\ hslot C st vars = Some V /\
      forall vs, (forall v, In v vs -> v < nlevels s) -> is_varset s V vs -> (q = QUnique -> NoDup vs) ->
        holds st' d (quant (qfun q) vs (lift2 op (bfun_of s f) (bfun_of s g)))
  | HRestrict d x cube =>
    exists f V, hslot C st x = Some f /\ hslot C st cube = Some V /\
      forall lits, NoDup (map fst lits) -> (forall p, In p lits -> fst p < nlevels s) -> is_cube s V lits ->
        holds st' d (restrict_s lits (bfun_of s f))
  | HNewSubst pairs =>
    exists rp, resolve_pairs (s_handles s) pairs = Some rp /\
      hreg_fn (h_reg C st') (h_next C st) = Some rp /\ h_next C st' = N.succ (h_next C st) /\
      (forall id, id <> h_next C st -> hreg_fn (h_reg C st') id = hreg_fn (h_reg C st) id) /\
      h_s C st' = s
  | HSubst d x id =>
    exists f rp, hslot C st x = Some f /\ hreg_fn (h_reg C st) id = Some rp /\
      holds st' d (subst_s (map (fun p => (fst p, bfun_of s (snd p))) rp) (bfun_of s f))
  | HClone d x => hget (s_handles (h_s C st')) d = hget (s_handles s) x /\ occupied st' d
  | HDrop x => hget (s_handles (h_s C st')) x = None /\ s_nodes (h_s C st') = s_nodes s
  | HGc =>
    (forall id nd, find_node (h_s C st') id = Some nd ->
       find_node s id = Some nd /\ exists r, hroot st r /\ reachable s [r] (RN id))
  | HAddVars k =>
    s_l2v (h_s C st') = s_l2v s ++ seq (nlevels s) k /\
    s_v2l (h_s C st') = s_v2l s ++ seq (nlevels s) k /\ s_nodes (h_s C st') = s_nodes s
  | HSetVarOrder order =>
    nlevels (h_s C st') = nlevels s /\
    forall a b, a < b < length order ->
      nth (nth a order 0) (s_v2l (h_s C st')) 0 < nth (nth b order 0) (s_v2l (h_s C st')) 0
  end.

(** ** A new table and cache under an unchanged registry *)

Lemma hinv_table : forall st s' c', HInv st -> BddOK s' -> QOK (h_reg C st) s' c' ->
  nlevels (h_s C st) <= nlevels s' -> (forall r, hroot st r -> ref_ok s' r) ->
  HInv (mkH s' c' (h_reg C st) (h_next C st)).
Proof.
  intros st s' c' I B' Q' Hn Ok. constructor; simpl; [exact B' | exact Q' | | apply (hi_fresh st I)].
  intros id pairs Hin. destruct (hi_reg st I id pairs Hin) as [Hnd Hp]. split; [exact Hnd|].
  intros v r Hvr. split; [pose proof (proj1 (Hp v r Hvr)); lia|].
  apply Ok. right. exists id, pairs, v. auto.
Qed.

Lemma qok_widen : forall st s' k hs c', HInv st -> WF s' -> nlevels (h_s C st) <= nlevels s' ->
  QOK (h_reg C st) s' c' -> QOK (h_reg C st) (widen s' k hs) c'.
Proof.
  intros st s' k hs c' I H' Hn Q'. apply qcacheok_widen; [exact H' | | exact Q'].
  intros id pairs E v r Hin. pose proof (pairs_range st I id pairs E v r Hin). lia.
Qed.

(** ** Storing the result of an algorithm *)

Lemma hinv_put : forall st s' c' d r, HInv st ->
  BddOK s' -> extends (h_s C st) s' -> QOK (h_reg C st) s' c' -> ref_ok s' r ->
  HInv (mkH (put s' d r) c' (h_reg C st) (h_next C st)).
Proof.
  intros st s' c' d r I B' X Q' Or.
  assert (Hn : nlevels (h_s C st) <= nlevels s') by (rewrite (ext_nlevels _ _ X); apply le_n).
  apply hinv_table; [exact I | apply bddok_put; assumption | | exact Hn |].
  - unfold put. rewrite widen_set_handles. apply qok_widen; [exact I | apply (bo_wf s' B') | exact Hn | exact Q'].
  - intros r0 Hr. apply (ext_ref_ok _ _ _ X (hroot_ok st r0 I Hr)).
Qed.

Lemma frame_put : forall st o s' c' d r, HInv st -> hdst o = Some d ->
  extends (h_s C st) s' ->
  hframe st o (mkH (put s' d r) c' (h_reg C st) (h_next C st)).
Proof.
  intros st o s' c' d r I Hd X. split; [|split]; simpl.
  3: { intros _. split; [apply (ext_l2v _ _ X) | apply (ext_v2l _ _ X)]. }
  - intros x Hx. rewrite Hd in Hx. unfold put. simpl.
    rewrite hget_hset_other by congruence. rewrite (ext_handles _ _ X). reflexivity.
  - intros r0 Hr. pose proof (hroot_ok st r0 I Hr) as Ok. split.
    + unfold put. apply (ext_ref_ok _ _ _ X Ok).
    + intros a. unfold put. rewrite bfun_of_set_handles.
      apply (bfun_of_extends _ _ _ _ (bo_wf _ (hi_bdd st I)) X Ok).
Qed.

Lemma holds_put : forall s' c' reg nx d r F, (forall a, bfun_of s' r a = F a) ->
  holds (mkH (put s' d r) c' reg nx) d F.
Proof.
  intros s' c' reg nx d r F HF. exists r. split.
  - unfold hslot, put. simpl. rewrite hget_hset_same. reflexivity.
  - intros a. simpl. unfold put. rewrite bfun_of_set_handles. apply HF.
Qed.

(** the common part of all calls that run an algorithm and store its result:
    what is left to show is the postcondition, on the state written out *)
Lemma finish_ok : forall st o d res s' c' r, HInv st -> hdst o = Some d ->
  res = Some (s', c', r) ->
  BddOK s' -> extends (h_s C st) s' -> QOK (h_reg C st) s' c' -> ref_ok s' r ->
  hpost st o (mkH (put s' d r) c' (h_reg C st) (h_next C st)) ->
  exists st', hfinish C st d res = Some st' /\ HInv st' /\ hframe st o st' /\ hpost st o st'.
Proof.
  intros st o d res s' c' r I Hd -> B' X Q' Or P. eexists. split; [reflexivity|].
  split; [apply hinv_put; assumption|]. split; [apply frame_put; assumption | exact P].
Qed.

(** from a level-indexed denotation of the result to its function over variables *)
Lemma den_to_bfun : forall s s' r Phi a, extends s s' -> Den s' r Phi ->
  bfun_of s' r a = Phi (choice_of s a).
Proof.
  intros s s' r Phi a X D. rewrite (bfun_of_den s' r Phi D). unfold choice_of.
  rewrite (ext_l2v _ _ X). reflexivity.
Qed.

(** ** Garbage collection and reordering: a new table under the old handle list *)

Lemma hroot_with_roots : forall st r,
  hroot st r <-> exists h, In h (s_handles (with_roots C st)) /\ eref (snd h) = r.
Proof.
  intros st r. unfold with_roots. simpl. split.
  - intros [[h [Hin E]]|[id [p [v [Hin Hp]]]]].
    + exists h. split; [apply in_app_iff; left; exact Hin | exact E].
    + exists (id, Build.E r). split; [|reflexivity]. apply in_app_iff. right. apply reg_roots_In.
      exists id, p, v, r. auto.
  - intros [h [Hin E]]. apply in_app_iff in Hin. destruct Hin as [Hin|Hin].
    + left. exists h. auto.
    + apply reg_roots_In in Hin. destruct Hin as [id [p [v [r0 [Hin [Hp ->]]]]]].
      simpl in E. subst r0. right. exists id, p, v. auto.
Qed.

Lemma with_roots_ok : forall st, HInv st -> BddOK (with_roots C st).
Proof.
  intros st I. apply bddok_set_handles; [apply (hi_bdd st I)|].
  intros h Hin. apply in_app_iff in Hin. destruct Hin as [Hin|Hin].
  - apply (bdd_handle_ok _ h (hi_bdd st I) Hin).
  - apply reg_roots_In in Hin. destruct Hin as [id [p [v [r [Hin [Hp ->]]]]]]. simpl.
    split; [apply (proj2 (hi_reg st I id p Hin) v r Hp) | reflexivity].
Qed.

Lemma retable_ok : forall st o s2, HInv st -> BddOK s2 -> nlevels s2 = nlevels (h_s C st) ->
  (forall h, In h (s_handles (with_roots C st)) -> ref_ok s2 (eref (snd h))) ->
  (forall h a, In h (s_handles (with_roots C st)) ->
     bfun_of s2 (eref (snd h)) a = bfun_of (with_roots C st) (eref (snd h)) a) ->
  (changes_order o = false -> order_same (h_s C st) s2) ->
  HInv (mkH (set_handles s2 (s_handles (h_s C st))) cempty (h_reg C st) (h_next C st)) /\
  hframe st o (mkH (set_handles s2 (s_handles (h_s C st))) cempty (h_reg C st) (h_next C st)).
Proof.
  intros st o s2 I B2 Hn Ok2 Fn Ho.
  assert (Ok : forall r, hroot st r -> ref_ok s2 r).
  { intros r Hr. apply hroot_with_roots in Hr. destruct Hr as [h [Hin <-]]. apply (Ok2 h Hin). }
  split.
  - apply hinv_table; [exact I | | apply qok_empty | simpl; rewrite <- Hn; apply le_n | exact Ok].
    apply bddok_set_handles; [exact B2|]. intros h Hin.
    split; [apply Ok; left; exists h; auto | apply (bdd_handle_ok _ h (hi_bdd st I) Hin)].
  - split; [intros x _; reflexivity|]. split; [|exact Ho].
    intros r Hr. split; [apply (Ok r Hr)|]. intros a. simpl. rewrite bfun_of_set_handles.
    apply hroot_with_roots in Hr. destruct Hr as [h [Hin <-]]. rewrite (Fn h a Hin).
    unfold with_roots. apply bfun_of_set_handles.
Qed.

(** ** [Subst::new] reads occupied slots *)

Lemma resolve_pairs_ok : forall st pairs,
  (forall v k, In (v, k) pairs -> v < nlevels (h_s C st) /\ occupied st k) ->
  exists rp, resolve_pairs (s_handles (h_s C st)) pairs = Some rp /\ map fst rp = map fst pairs /\
    forall v r, In (v, r) rp -> v < nlevels (h_s C st) /\ hroot st r.
Proof.
  intros st. induction pairs as [|[v k] rest IH]; intros Hp.
  - exists []. split; [reflexivity|]. split; [reflexivity | intros ? ? []].
  - destruct (Hp v k (or_introl eq_refl)) as [Hv [r Er]].
    destruct IH as [rp [E1 [E2 E3]]]; [intros v0 k0 Hin; apply Hp; right; exact Hin|].
    pose proof (hslot_root st k r Er) as Rt. unfold hslot in Er. simpl.
    destruct (hget (s_handles (h_s C st)) k) as [e|]; [|discriminate]. inversion Er; subst r.
    rewrite E1. exists ((v, eref e) :: rp). split; [reflexivity|]. split; [simpl; rewrite E2; reflexivity|].
    intros v0 r0 [Heq|Hin]; [inversion Heq; subst; auto | apply E3; exact Hin].
Qed.

(** ** One call *)

Theorem hstep_ok : forall st o, HInv st -> hop_pre st o ->
  exists st', hstep st o = Some st' /\ HInv st' /\ hframe st o st' /\ hpost st o st'.
Proof.
  intros st o I Pre. pose proof (hi_bdd st I) as B. pose proof (hi_cache st I) as Q.
  pose proof (bo_wf _ B) as H.
  destruct o as [d b|d v neg|d x|op d x y|d x y z|q d x vars|q op d x y vars|d x cube|pairs|d x id
                 |d x|x| |k|order]; simpl in Pre; cbn [History.hstep].
  - (* HConst *)
    destruct (mk_const_sem _ b B) as [r [E D]]. rewrite E.
    apply (finish_ok st (HConst d b) d _ _ _ r I eq_refl eq_refl B (extends_refl _) Q (proj1 D)).
    apply holds_put. intros a. rewrite (bfun_of_den _ r _ D). reflexivity.
  - (* HVar *)
    destruct (mk_var_bfun _ v neg B Pre) as [s' [r [E [B' [X [Or S]]]]]]. rewrite E.
    apply (finish_ok st (HVar d v neg) d _ s' _ r I eq_refl eq_refl B' X (qcacheok_extends C cget _ _ s' _ B X Q) Or).
    apply holds_put. exact S.
  - (* HNot *)
    destruct Pre as [f Ef]. rewrite Ef. pose proof (hslot_ok st x f I Ef) as Of.
    destruct (den_exists _ f B Of) as [phi Df].
    destruct (q_apply_not C cget cadd Hlossy (hreg_fn (h_reg C st)) _ (h_c C st) f phi B Q Df)
      as [s' [c' [r [E [B' [X [Q' D']]]]]]].
    apply (finish_ok st (HNot d x) d _ s' c' r I eq_refl E B' X Q' (proj1 D')).
    exists f. split; [exact Ef|]. apply holds_put. intros a.
    rewrite (den_to_bfun _ s' r _ a X D'). unfold lift1. rewrite (bfun_of_den _ f phi Df). reflexivity.
  - (* HBin *)
    destruct Pre as [[f Ef] [g Eg]]. rewrite Ef, Eg.
    pose proof (hslot_ok st x f I Ef) as Of. pose proof (hslot_ok st y g I Eg) as Og.
    destruct (den_exists _ f B Of) as [phi Df]. destruct (den_exists _ g B Og) as [psi Dg].
    destruct (q_apply_bin gt C cget cadd Hlossy (hreg_fn (h_reg C st)) op _ (h_c C st) f g phi psi B Q Df Dg)
      as [s' [c' [r [E [B' [X [Q' D']]]]]]].
    apply (finish_ok st (HBin op d x y) d _ s' c' r I eq_refl E B' X Q' (proj1 D')).
    exists f, g. split; [exact Ef|]. split; [exact Eg|]. apply holds_put. intros a.
    rewrite (den_to_bfun _ s' r _ a X D'). unfold lift2.
    rewrite (bfun_of_den _ f phi Df), (bfun_of_den _ g psi Dg). reflexivity.
  - (* HIte *)
    destruct Pre as [[f Ef] [[g Eg] [h Eh]]]. rewrite Ef, Eg, Eh.
    pose proof (hslot_ok st x f I Ef) as Of. pose proof (hslot_ok st y g I Eg) as Og.
    pose proof (hslot_ok st z h I Eh) as Oh.
    destruct (den_exists _ f B Of) as [phi Df]. destruct (den_exists _ g B Og) as [psi Dg].
    destruct (den_exists _ h B Oh) as [theta Dh].
    destruct (q_apply_ite gt C cget cadd Hlossy (hreg_fn (h_reg C st)) _ (h_c C st) f g h phi psi theta
                B Q Df Dg Dh) as [s' [c' [r [E [B' [X [Q' D']]]]]]].
    apply (finish_ok st (HIte d x y z) d _ s' c' r I eq_refl E B' X Q' (proj1 D')).
    exists f, g, h. split; [exact Ef|]. split; [exact Eg|]. split; [exact Eh|]. apply holds_put. intros a.
    rewrite (den_to_bfun _ s' r _ a X D'). unfold ite_s.
    rewrite (bfun_of_den _ f phi Df), (bfun_of_den _ g psi Dg), (bfun_of_den _ h theta Dh). reflexivity.
  - (* HQuant *)
    destruct Pre as [[f Ef] [V Ev]]. rewrite Ef, Ev.
    destruct (quant_edge_total gt C cget cadd Hlossy _ q _ (h_c C st) f V B Q
                (hslot_ok st x f I Ef) (hslot_ok st vars V I Ev))
      as [s' [c' [r [E [B' [X [Q' [Or S]]]]]]]].
    apply (finish_ok st (HQuant q d x vars) d _ s' c' r I eq_refl E B' X Q' Or).
    exists f, V. split; [exact Ef|]. split; [exact Ev|].
    intros vs Hlt Hvs Hu. apply holds_put. apply (S vs Hlt Hvs Hu).
  - (* HApplyQuant *)
    destruct Pre as [[f Ef] [[g Eg] [V Ev]]]. rewrite Ef, Eg, Ev.
    destruct (apply_quant_edge_total gt C cget cadd Hlossy _ q op _ (h_c C st) f g V B Q
                (hslot_ok st x f I Ef) (hslot_ok st y g I Eg) (hslot_ok st vars V I Ev))
      as [s' [c' [r [E [B' [X [Q' [Or S]]]]]]]].
    apply (finish_ok st (HApplyQuant q op d x y vars) d _ s' c' r I eq_refl E B' X Q' Or).
    exists f, g, V. split; [exact Ef|]. split; [exact Eg|]. split; [exact Ev|].
    intros vs Hlt Hvs Hu. apply holds_put. apply (S vs Hlt Hvs Hu).
  - (* HRestrict *)
    destruct Pre as [[f Ef] [V Ev]]. rewrite Ef, Ev.
    destruct (restrict_edge_total C cget cadd Hlossy _ _ (h_c C st) f V B Q
                (hslot_ok st x f I Ef) (hslot_ok st cube V I Ev))
      as [s' [c' [r [E [B' [X [Q' [Or S]]]]]]]].
    apply (finish_ok st (HRestrict d x cube) d _ s' c' r I eq_refl E B' X Q' Or).
    exists f, V. split; [exact Ef|]. split; [exact Ev|].
    intros lits Hnd Hlt Hc. apply holds_put. apply (S lits Hnd Hlt Hc).
  - (* HNewSubst *)
    destruct Pre as [Hnd Hp]. destruct (resolve_pairs_ok st pairs Hp) as [rp [E1 [E2 E3]]]. rewrite E1.
    assert (Hfresh : hreg_fn (h_reg C st) (h_next C st) = None).
    { destruct (hreg_fn (h_reg C st) (h_next C st)) as [p|] eqn:Ex; [|reflexivity].
      pose proof (hi_fresh st I _ _ (hreg_fn_In _ _ _ Ex)). lia. }
    eexists. split; [reflexivity|]. split; [|split].
    + constructor; simpl.
      * exact B.
      * apply (qcacheok_register C cget (hreg_fn (h_reg C st)) _ (h_c C st) (h_next C st) rp Q Hfresh).
      * intros id p [Heq|Hin]; [|apply (hi_reg st I id p Hin)]. inversion Heq; subst.
        split; [rewrite E2; exact Hnd|]. intros v r Hin. destruct (E3 v r Hin) as [A Rt].
        split; [exact A | apply (hroot_ok st r I Rt)].
      * intros id p [Heq|Hin]; [inversion Heq; subst; lia|]. pose proof (hi_fresh st I id p Hin). lia.
    + split; [|split]; simpl.
      * intros x _. reflexivity.
      * intros r Hr. split; [apply (hroot_ok st r I Hr) | reflexivity].
      * intros _. split; reflexivity.
    + simpl. exists rp. split; [exact E1|]. split; [rewrite N.eqb_refl; reflexivity|].
      split; [reflexivity|]. split; [|reflexivity].
      intros id Hne. destruct (N.eqb_spec id (h_next C st)); [contradiction | reflexivity].
  - (* HSubst *)
    destruct Pre as [[f Ef] [rp Er]]. rewrite Ef, Er.
    destruct (hi_reg st I id rp (hreg_fn_In _ _ _ Er)) as [Hnd Hp].
    destruct (substitute_edge_sound gt C cget cadd Hlossy _ _ (h_c C st) f rp id B Q
                (hslot_ok st x f I Ef) Hnd Hp Er)
      as [s' [c' [r [E [B' [X [Q' [Or S]]]]]]]].
    apply (finish_ok st (HSubst d x id) d _ s' c' r I eq_refl E B' X Q' Or).
    exists f, rp. split; [exact Ef|]. split; [exact Er|]. apply holds_put. exact S.
  - (* HClone *)
    destruct Pre as [f Ef]. rewrite Ef.
    apply (finish_ok st (HClone d x) d _ _ _ f I eq_refl eq_refl B (extends_refl _) Q (hslot_ok st x f I Ef)).
    simpl. unfold put. simpl. rewrite hget_hset_same.
    unfold hslot in Ef. destruct (hget (s_handles (h_s C st)) x) as [e|] eqn:Eg; [|discriminate].
    inversion Ef; subst. split.
    + f_equal. apply edge_ext; [reflexivity|]. simpl. symmetry.
      apply (bdd_handle_ok _ (x, e) B (hget_In _ _ _ Eg)).
    + exists (eref e). unfold hslot. simpl. rewrite hget_hset_same. reflexivity.
  - (* HDrop *)
    eexists. split; [reflexivity|]. split; [|split].
    + apply hinv_table; [exact I | apply bddok_drop; exact B | | apply le_n | intros r; apply (hroot_ok st r I)].
      rewrite widen_set_handles. apply qok_widen; [exact I | exact H | apply le_n | exact Q].
    + split; [|split]; simpl.
      * intros y Hy. apply hget_hdel_other. congruence.
      * intros r Hr. split; [apply (hroot_ok st r I Hr) | intros a; apply bfun_of_set_handles].
      * intros _. split; reflexivity.
    + simpl. split; [apply hget_hdel_same | reflexivity].
  - (* HGc: [collected_ok] for the table with the registry's references among the handles *)
    pose proof (with_roots_ok st I) as B1.
    pose proof (gc_model_collected _ (bo_wf _ B1)) as Cg.
    destruct (collected_ok _ _ B1 Cg) as [Bg [Xg [Hh _]]].
    destruct (retable_ok st HGc (gc_model (with_roots C st)) I Bg (eq_sym (ext_nlevels _ _ Xg)) Hh) as [I' F'].
    { intros h a Hin. symmetry. apply (bfun_of_extends _ _ _ a (bo_wf _ Bg) Xg (Hh h Hin)). }
    { intros _. split; [symmetry; apply (ext_l2v _ _ Xg) | symmetry; apply (ext_v2l _ _ Xg)]. }
    eexists. split; [reflexivity|]. split; [exact I'|]. split; [exact F'|].
    simpl. intros id nd E. apply (gc_model_find _ (bo_wf _ B1)) in E. destruct E as [E R].
    split; [exact E|].
    destruct (reachable_one (with_roots C st) (h_s C st) _ _ (fun _ => eq_refl) R) as [r [Hin Rr]].
    exists r. split; [|exact Rr]. apply hroot_with_roots.
    unfold handle_refs in Hin. apply in_map_iff in Hin. destruct Hin as [h [<- Hin]]. exists h. auto.
  - (* HAddVars *)
    eexists. split; [reflexivity|]. rewrite widen_add_vars. split; [|split].
    + apply hinv_table; [exact I | | | rewrite widen_nlevels; lia |].
      * apply bddok_widen; [exact B|]. intros h Hin. apply (bdd_handle_ok _ h B Hin).
      * apply qok_widen; [exact I | exact H | apply le_n | exact Q].
      * intros r Hr. apply ref_ok_widen. apply (hroot_ok st r I Hr).
    + split; [|split]; simpl.
      * intros x _. reflexivity.
      * intros r Hr. pose proof (hroot_ok st r I Hr) as Ok.
        split; [apply ref_ok_widen; exact Ok | intros a; apply (bfun_of_widen _ _ _ _ _ H Ok)].
      * discriminate.
    + simpl. auto.
  - (* HSetVarOrder *)
    destruct Pre as [Hnd Hr].
    assert (Hsame : hframe st (HSetVarOrder order) st).
    { split; [intros; reflexivity|]. split; [|discriminate].
      intros r Hrr. split; [apply (hroot_ok st r I Hrr) | reflexivity]. }
    destruct (Nat.leb (length order) 1) eqn:Elen.
    { exists st. split; [reflexivity|]. split; [exact I|]. split; [exact Hsame|]. simpl.
      split; [reflexivity|]. intros a b Hab. apply Nat.leb_le in Elen. lia. }
    rewrite (proj2 (order_ok_b_valid _ order) (conj Hnd Hr)).
    destruct (nat_list_eqb _ (seq 0 (nlevels (h_s C st)))) eqn:Esorted.
    { exists st. split; [reflexivity|]. split; [exact I|]. split; [exact Hsame|]. simpl.
      split; [reflexivity|]. apply nat_list_eqb_eq in Esorted.
      apply (sorted_respects _ order H Hnd Hr Esorted). }
    pose proof (with_roots_ok st I) as B1.
    destruct (retable_ok st (HSetVarOrder order) _ I (reorder_bddok _ order B1 Hnd Hr)
                (reorder_nlevels _ order B1 Hnd Hr) (reorder_handle_ok _ order B1 Hnd Hr)
                (reorder_bfun _ order B1 Hnd Hr)) as [I' F']; [discriminate|].
    eexists. split; [reflexivity|]. split; [exact I'|]. split; [exact F'|].
    split; [apply (reorder_nlevels _ order B1 Hnd Hr) | apply (reorder_respects _ order B1 Hnd Hr)].
Qed.

End Hist.
