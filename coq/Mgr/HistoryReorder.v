(** * [set_var_order_model] (Mgr/LevelSwap.v) in the vocabulary of the state machine

    From Mgr/LevelSwapOrder.v ([set_var_order_model_correct]): reordering a
    [BddOK] table gives a [BddOK] table with the same handle list, and every
    handle denotes the same function of the VARIABLES ([bfun_of]). *)

From Coq Require Import List NArith PArith Bool Arith Lia FMapPositive.
From OxiVerif Require Import DD.Table DD.TableProofs DD.Canon DD.Sem DD.Build DD.BuildProofs
  DD.Apply DD.ApplyProofs DD.ApplyEvalProofs DD.QuantTopProofs
  Mgr.SortOrder Mgr.SortOrderProofs Mgr.LevelSwap Mgr.LevelSwapBase Mgr.LevelSwapProofs Mgr.LevelSwapOrder.
Import ListNotations.

Lemma fold_level_swap_terms : forall sw s, s_terms (fold_left level_swap sw s) = s_terms s.
Proof. induction sw as [|k sw IH]; intros s; simpl; [reflexivity | rewrite IH; reflexivity]. Qed.

Lemma reorder_terms : forall s order, s_terms (set_var_order_model s order) = s_terms s.
Proof. intros. unfold set_var_order_model. apply fold_level_swap_terms. Qed.

Lemma bdd_bink : forall s, BddOK s -> bink (s_kind s).
Proof. intros s B. left. apply (bo_kind s B). Qed.

(** [bfun_of] is [eval_vars] read as a Boolean *)
Lemma bfun_eval_vars : forall s e a, WF s -> s_kind s = KBdd ->
  bfun_of s (eref e) a = match eval_vars s e a with Some 1%N => true | _ => false end.
Proof.
  intros s e a H Hk. unfold bfun_of, eval_vars, sem_edge, FUEL. rewrite Hk.
  rewrite (semk_ext_lt s H _ (eref e) (choice_of s a) (asg_choice s a)); [reflexivity|].
  intros l Hl. unfold choice_of, asg_choice.
  destruct (nth_error (s_l2v s) l) as [v|] eqn:E.
  - rewrite (nth_error_nth _ _ 0 E). reflexivity.
  - apply nth_error_None in E. unfold nlevels in Hl. lia.
Qed.

(** the early return of [set_var_order]: when sorting the named variables'
    levels moves nothing, they already are in the requested relative order *)
Lemma sorted_respects : forall s order, WF s -> NoDup order -> Forall (fun v => v < nlevels s) order ->
  sort_order (nlevels s) (map (fun v => nth v (s_v2l s) 0) order) = seq 0 (nlevels s) ->
  forall a b, a < b < length order ->
    nth (nth a order 0) (s_v2l s) 0 < nth (nth b order 0) (s_v2l s) 0.
Proof.
  intros s order H Hnd Hr Es a b Hab.
  pose proof (sort_order_respects (nlevels s) _ (valid_order_levels s order H Hnd Hr) a b) as R.
  rewrite map_length, Es in R. specialize (R Hab).
  rewrite !(nth_map_in _ _ (fun v => nth v (s_v2l s) 0) order _ 0) in R by lia.
  rewrite Forall_forall in Hr.
  rewrite !seq_nth in R by (apply (wf_v2l_l2v s _ H), Hr, nth_In; lia). exact R.
Qed.

Section Reorder.
Variable s : snap.
Variable order : list nat.
Hypothesis B : BddOK s.
Hypothesis Hnd : NoDup order.
Hypothesis Hr : Forall (fun v => v < nlevels s) order.

Let s' := set_var_order_model s order.
Let H : WF s := bo_wf s B.
Let Hk : bink (s_kind s) := bdd_bink s B.

Lemma reorder_facts :
  WF s' /\ s_kind s' = s_kind s /\ nlevels s' = nlevels s /\ s_handles s' = s_handles s
  /\ (forall h a, In h (s_handles s) ->
        eval_vars s' (snd h) a = eval_vars s (snd h) a /\ exists v, eval_vars s (snd h) a = Some v).
Proof.
  destruct (set_var_order_model_correct s order H Hk Hnd Hr) as [A [B0 [C [D [G _]]]]].
  split; [exact A|]. split; [exact B0|]. split; [exact C|]. split; [exact D | exact G].
Qed.

Lemma reorder_bddok : BddOK s'.
Proof.
  destruct reorder_facts as [A [B0 [C [D G]]]].
  assert (Tv : forall t, term_val s' t = term_val s t).
  { intros t. unfold term_val, s'. rewrite reorder_terms. reflexivity. }
  constructor.
  - exact A.
  - rewrite B0. apply (bo_kind s B).
  - intros t v. rewrite Tv. apply (bo_codes s B).
  - destruct (bo_false s B) as [t E]. exists t. rewrite Tv. exact E.
  - destruct (bo_true s B) as [t E]. exists t. rewrite Tv. exact E.
Qed.

Lemma reorder_handles : s_handles s' = s_handles s.
Proof. apply reorder_facts. Qed.

Lemma reorder_nlevels : nlevels s' = nlevels s.
Proof. apply reorder_facts. Qed.

Lemma reorder_handle_ok : forall h, In h (s_handles s) -> ref_ok s' (eref (snd h)).
Proof.
  intros h Hh. apply (wf_handles s' (bo_wf s' reorder_bddok)). rewrite reorder_handles. exact Hh.
Qed.

(** every handle denotes the same function of the variables *)
Lemma reorder_bfun : forall h a, In h (s_handles s) ->
  bfun_of s' (eref (snd h)) a = bfun_of s (eref (snd h)) a.
Proof.
  intros h a Hh. destruct reorder_facts as [A [B0 [C [D G]]]].
  rewrite (bfun_eval_vars s' (snd h) a A) by (rewrite B0; apply (bo_kind s B)).
  rewrite (bfun_eval_vars s (snd h) a H (bo_kind s B)).
  destruct (G h a Hh) as [E _]. rewrite E. reflexivity.
Qed.

(** the variables named in the request end up in the requested relative order *)
Lemma reorder_respects : forall a b, a < b < length order ->
  nth (nth a order 0) (s_v2l s') 0 < nth (nth b order 0) (s_v2l s') 0.
Proof. apply (set_var_order_model_respects s order H Hk Hnd Hr). Qed.

End Reorder.
