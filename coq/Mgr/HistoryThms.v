(** * Theorems about ALL histories of the manager state machine (Mgr/History.v)

    For every configuration (operand order [gt], cache implementation
    [C]/[cget]/[cadd] that is [lossy], its cleared state [cempty]), every
    number [n] of initial variables and every history (list of [hop]) of
    well-formed requests from the empty manager [hinit n]:

    - [hrun_ok], [hreach_inv]: the run never gets stuck and every state it
      passes satisfies [HInv];
    - [hist_wf]: the table after ANY history passes the checker [wf_b] (C03);
    - [hist_canonical]: two slots hold the same edge IFF they denote the same
      function of the variables (C01);
    - [hist_frame_slots], [hist_add_vars]: a call changes neither the edge nor
      the function of any slot other than its destination; after [add_vars] the
      old functions ignore the new variables (C16); [hist_reorder_keeps]: the
      same for [set_var_order] (C08).

    Result correctness ([hstep_spec], [hist_result_unique], [hist_result_determined])
    is in Mgr/HistorySpec.v. *)

From Coq Require Import List NArith PArith Bool Arith Lia FMapPositive.
From OxiVerif Require Import DD.Table DD.TableProofs DD.Canon DD.Sem DD.Build DD.BuildProofs
  DD.Apply DD.ApplyProofs DD.ApplyEvalProofs DD.ConfigApply DD.ConfigRun DD.Iso
  DD.Quant DD.QuantSpecProofs DD.QuantLemmas DD.QuantTopProofs
  Mgr.SortOrder Mgr.SortOrderProofs Mgr.LevelSwap
  Mgr.History Mgr.HistoryBase Mgr.HistoryProofs.
Import ListNotations.

Local Arguments hset : simpl never.
Local Arguments hget : simpl never.
Local Arguments hdel : simpl never.
Local Arguments bfun_of : simpl never.

(** ** The empty manager *)

Lemma empty_wf : forall n, WF (empty_snap n).
Proof. intros n. apply empty_wf_gen; repeat constructor; simpl; intuition discriminate. Qed.

Lemma empty_bddok : forall n, BddOK (empty_snap n).
Proof.
  intros n. constructor.
  - apply empty_wf.
  - reflexivity.
  - intros t v. unfold term_val. cbn [s_terms empty_snap assoc_N].
    destruct (N.eqb 0 t); [intros E; inversion E; subst; auto|].
    destruct (N.eqb 1 t); [intros E; inversion E; subst; auto | discriminate].
  - exists 0%N. reflexivity.
  - exists 1%N. reflexivity.
Qed.

Section Thms.
Variable gt : ref -> ref -> bool.
Variable C : Type.
Variable cget : C -> N -> list ref -> option ref.
Variable cadd : C -> N -> list ref -> ref -> C.
Hypothesis Hlossy : lossy cget cadd.
Variable cempty : C.
Hypothesis Hempty : forall k a, cget cempty k a = None.

Notation hstate := (hstate C).
Notation hstep := (hstep gt C cget cadd cempty).
Notation hrun := (hrun gt C cget cadd cempty).
Notation HInv := (HInv C cget).
Notation hop_pre := (hop_pre C).
Notation hframe := (hframe C).
Notation hpost := (hpost C).
Notation holds := (holds C).
Notation hinit := (hinit C cempty).
Notation step_ok := (hstep_ok gt C cget cadd Hlossy cempty Hempty).

(** the invariant, spelled out *)
Theorem hinv_unfold : forall st : hstate,
  HInv st <->
  (BddOK (h_s C st) /\
   QCacheOK cget (hreg_fn (h_reg C st)) (h_s C st) (h_c C st) /\
   (forall id pairs, In (id, pairs) (h_reg C st) ->
      NoDup (map fst pairs) /\
      forall v r, In (v, r) pairs -> v < nlevels (h_s C st) /\ ref_ok (h_s C st) r) /\
   (forall id pairs, In (id, pairs) (h_reg C st) -> (id < h_next C st)%N)).
Proof.
  intros st. split.
  - intros [A B D F]. auto.
  - intros [A [B [D F]]]. constructor; assumption.
Qed.

Theorem hinit_inv : forall n, HInv (hinit n).
Proof.
  intros n. constructor; simpl.
  - apply empty_bddok.
  - apply (qok_empty C cget cempty Hempty []).
  - intros id pairs [].
  - intros id pairs [].
Qed.

(** ** Runs *)

(** every request is well-formed when it is its turn *)
Fixpoint hops_pre (st : hstate) (ops : list hop) : Prop :=
  match ops with
  | [] => True
  | o :: rest => hop_pre st o /\ forall st1, hstep st o = Some st1 -> hops_pre st1 rest
  end.

Lemma hstep_inv : forall st o, HInv st -> hop_pre st o -> exists st', hstep st o = Some st' /\ HInv st'.
Proof. intros st o I0 P. destruct (step_ok st o I0 P) as [st' [E [I' _]]]. exists st'. auto. Qed.

Theorem hrun_ok : forall ops st, HInv st -> hops_pre st ops ->
  exists st', hrun st ops = Some st' /\ HInv st'.
Proof. exact (run_ok _ _ hstep HInv hop_pre hstep_inv). Qed.

(** the states a client can bring a manager with [n] initial variables into *)
Definition hreach (n : nat) (st : hstate) : Prop :=
  exists ops, hops_pre (hinit n) ops /\ hrun (hinit n) ops = Some st.

Theorem hreach_init : forall n, hreach n (hinit n).
Proof. intros n. exists []. split; [exact I | reflexivity]. Qed.

Theorem hreach_inv : forall n st, hreach n st -> HInv st.
Proof. intros n st. exact (reach_inv _ _ hstep HInv hop_pre hstep_inv (hinit n) st (hinit_inv n)). Qed.

Theorem hreach_step : forall n st o st', hreach n st -> hop_pre st o -> hstep st o = Some st' ->
  hreach n st'.
Proof. intros n. exact (reach_step _ _ hstep hop_pre (hinit n)). Qed.

(** (1) no well-formed request ever gets stuck, from any reachable state *)
Theorem hist_progress : forall n st o, hreach n st -> hop_pre st o ->
  exists st', hstep st o = Some st' /\ hreach n st' /\ hframe st o st' /\ hpost st o st'.
Proof.
  intros n st o R Pre. destruct (step_ok st o (hreach_inv n st R) Pre) as [st' [E [_ [F P]]]].
  exists st'. split; [exact E|]. split; [apply (hreach_step n st o st' R Pre E)|]. auto.
Qed.

(** (1) C03: after any history the table passes the structural checker *)
Theorem hist_wf : forall n st, hreach n st ->
  wf_b (h_s C st) = true /\ bdd_ok_b (h_s C st) = true.
Proof.
  intros n st R. pose proof (hi_bdd C cget st (hreach_inv n st R)) as B.
  split; [apply wf_b_spec; apply (bo_wf _ B) | apply bdd_ok_b_spec; exact B].
Qed.

(** ** Canonicity *)

Lemma bfun_eq_den : forall s r1 r2 phi, BddOK s -> Den s r1 phi -> ref_ok s r2 ->
  (forall a, bfun_of s r1 a = bfun_of s r2 a) -> Den s r2 phi.
Proof.
  intros s r1 r2 phi B D1 O2 Heq. pose proof (bo_wf s B) as H.
  destruct (den_exists s r2 B O2) as [psi D2].
  apply (den_ext s r2 psi phi D2). intros c Hc.
  rewrite (den_bfun s H r2 psi c D2 Hc), (den_bfun s H r1 phi c D1 Hc). symmetry. apply Heq.
Qed.

Theorem hinv_canonical : forall st, HInv st ->
  forall x y ex ey, hget (s_handles (h_s C st)) x = Some ex -> hget (s_handles (h_s C st)) y = Some ey ->
  (ex = ey <-> forall a, bfun_of (h_s C st) (eref ex) a = bfun_of (h_s C st) (eref ey) a).
Proof.
  intros st I x y ex ey Ex Ey. pose proof (hi_bdd C cget st I) as B.
  destruct (bdd_handle_ok _ (x, ex) B (hget_In _ _ _ Ex)) as [Ox Tx].
  destruct (bdd_handle_ok _ (y, ey) B (hget_In _ _ _ Ey)) as [Oy Ty]. simpl in *.
  split; [intros ->; reflexivity|]. intros Heq.
  destruct (den_exists _ (eref ex) B Ox) as [phi Dx].
  apply edge_ext; [|congruence].
  apply (den_canon _ _ _ phi B Dx). apply (bfun_eq_den _ (eref ex) (eref ey) phi B Dx Oy Heq).
Qed.

(** (2) C01: after any history, two slots hold the same edge iff they denote
    the same function of the manager's variables *)
Theorem hist_canonical : forall n st, hreach n st ->
  forall x y ex ey, hget (s_handles (h_s C st)) x = Some ex -> hget (s_handles (h_s C st)) y = Some ey ->
  (ex = ey <-> forall a, bfun_of (h_s C st) (eref ex) a = bfun_of (h_s C st) (eref ey) a).
Proof. intros n st R. apply hinv_canonical. apply (hreach_inv n st R). Qed.

(** ** The frame, slot by slot *)

(** (3) a call changes neither the edge nor the function of any slot other than its destination *)
Theorem hist_frame_slots : forall st o st', HInv st -> hop_pre st o -> hstep st o = Some st' ->
  forall x e, hdst o <> Some x -> hget (s_handles (h_s C st)) x = Some e ->
  hget (s_handles (h_s C st')) x = Some e /\
  ref_ok (h_s C st') (eref e) /\
  forall a, bfun_of (h_s C st') (eref e) a = bfun_of (h_s C st) (eref e) a.
Proof.
  intros st o st' I Pre E x e Hx Eg. destruct (step_ok st o I Pre) as [st1 [E1 [_ [[F1 [F2 _]] _]]]].
  rewrite E in E1. inversion E1; subst st1. split; [rewrite (F1 x Hx); exact Eg|].
  apply F2. left. exists (x, e). split; [apply hget_In; exact Eg | reflexivity].
Qed.

(** (3) along a whole history: as long as no call names slot [x] as its
    destination, the slot keeps its edge, and the edge keeps its function of
    the variables - through operations, collections, reorderings, added
    variables, with any cache behaviour *)
Theorem hist_slot_stable : forall ops st st', HInv st -> hops_pre st ops -> hrun st ops = Some st' ->
  forall x e, (forall o, In o ops -> hdst o <> Some x) ->
  hget (s_handles (h_s C st)) x = Some e ->
  hget (s_handles (h_s C st')) x = Some e /\
  ref_ok (h_s C st') (eref e) /\
  forall a, bfun_of (h_s C st') (eref e) a = bfun_of (h_s C st) (eref e) a.
Proof.
  induction ops as [|o rest IH]; intros st st' I Pre E x e Hx Eg.
  - simpl in E. inversion E; subst st'. split; [exact Eg|]. split; [|reflexivity].
    apply (bdd_handle_ok _ (x, e) (hi_bdd C cget st I) (hget_In _ _ _ Eg)).
  - destruct Pre as [P0 Prest]. simpl in E.
    destruct (step_ok st o I P0) as [st1 [E1 [I1 _]]]. rewrite E1 in E.
    destruct (hist_frame_slots st o st1 I P0 E1 x e (Hx o (or_introl eq_refl)) Eg) as [G1 [_ F1]].
    destruct (IH st1 st' I1 (Prest st1 E1) E x e (fun o' Ho => Hx o' (or_intror Ho)) G1) as [G2 [O2 F2]].
    split; [exact G2|]. split; [exact O2|]. intros a. rewrite F2. apply F1.
Qed.

(** the functions inside substitution objects are kept as well *)
Theorem hist_frame_subst : forall st o st', HInv st -> hop_pre st o -> hstep st o = Some st' ->
  forall id pairs v r, In (id, pairs) (h_reg C st) -> In (v, r) pairs ->
  ref_ok (h_s C st') r /\ forall a, bfun_of (h_s C st') r a = bfun_of (h_s C st) r a.
Proof.
  intros st o st' I Pre E id pairs v r Hin Hp. destruct (step_ok st o I Pre) as [st1 [E1 [_ [[_ [F2 _]] _]]]].
  rewrite E in E1. inversion E1; subst st1. apply F2. right. exists id, pairs, v. auto.
Qed.

(** a function of a table reads only the table's variables *)
Lemma bfun_of_local : forall s r a a', WF s -> (forall v, v < nlevels s -> a v = a' v) ->
  bfun_of s r a = bfun_of s r a'.
Proof.
  intros s r a a' H Hag. unfold bfun_of.
  rewrite (semk_ext_lt s H _ r (choice_of s a) (choice_of s a')); [reflexivity|].
  intros l Hl. unfold choice_of. destruct (vl_spec s H l Hl) as [E [_ Hv]]. rewrite E, (Hag _ Hv). reflexivity.
Qed.

(** (3) C16 along a whole history: however many variables are added meanwhile
    (and whatever else happens), an existing handle denotes the function it
    denoted, which reads only the variables that existed then *)
Theorem hist_handle_function_fixed : forall ops st st', HInv st -> hops_pre st ops -> hrun st ops = Some st' ->
  forall x e, (forall o, In o ops -> hdst o <> Some x) ->
  hget (s_handles (h_s C st)) x = Some e ->
  hget (s_handles (h_s C st')) x = Some e /\
  forall a a', (forall v, v < nlevels (h_s C st) -> a v = a' v) ->
    bfun_of (h_s C st') (eref e) a = bfun_of (h_s C st) (eref e) a'.
Proof.
  intros ops st st' I Pre E x e Hx Eg.
  destruct (hist_slot_stable ops st st' I Pre E x e Hx Eg) as [G [_ F]].
  split; [exact G|]. intros a a' Hag. rewrite F.
  apply (bfun_of_local _ _ a a' (bo_wf _ (hi_bdd C cget st I)) Hag).
Qed.

(** (3) C16: [add_vars] changes no node, no slot, and every function of the
    old table is the old function, which ignores the new variables *)
Theorem hist_add_vars : forall st k st', HInv st -> hstep st (HAddVars k) = Some st' ->
  nlevels (h_s C st') = nlevels (h_s C st) + k /\
  s_nodes (h_s C st') = s_nodes (h_s C st) /\
  s_handles (h_s C st') = s_handles (h_s C st) /\
  (forall v, v < nlevels (h_s C st) -> nth_error (s_v2l (h_s C st')) v = nth_error (s_v2l (h_s C st)) v) /\
  (forall i, i < k -> nth_error (s_v2l (h_s C st')) (nlevels (h_s C st) + i) = Some (nlevels (h_s C st) + i)) /\
  forall r, ref_ok (h_s C st) r ->
    ref_ok (h_s C st') r /\
    forall a a', (forall v, v < nlevels (h_s C st) -> a v = a' v) ->
      bfun_of (h_s C st') r a = bfun_of (h_s C st) r a'.
Proof.
  intros st k st' I E. simpl in E. inversion E; subst st'. clear E. simpl.
  pose proof (bo_wf _ (hi_bdd C cget st I)) as H.
  assert (Lv : length (s_v2l (h_s C st)) = nlevels (h_s C st)) by (apply (wf_perm_len _ H)).
  rewrite widen_add_vars. split; [apply widen_nlevels|]. split; [reflexivity|]. split; [reflexivity|].
  split; [|split].
  - intros v Hv. simpl. apply nth_error_app1. lia.
  - intros i Hi. simpl. rewrite (nth_error_app_seq _ _ k _ Lv).
    destruct (Nat.ltb_spec (nlevels (h_s C st) + i) (nlevels (h_s C st))); [lia|].
    destruct (Nat.ltb_spec (nlevels (h_s C st) + i) (nlevels (h_s C st) + k)); [reflexivity | lia].
  - intros r Ok. split; [apply ref_ok_widen; exact Ok|]. intros a a' Hag.
    rewrite (bfun_of_widen _ _ _ r a H Ok). apply (bfun_of_local _ r a a' H Hag).
Qed.

(** (3) C08: [set_var_order] changes no slot and no function of the variables,
    and establishes the requested relative order *)
Theorem hist_reorder_keeps : forall st order st', HInv st ->
  hop_pre st (HSetVarOrder order) -> hstep st (HSetVarOrder order) = Some st' ->
  HInv st' /\
  nlevels (h_s C st') = nlevels (h_s C st) /\
  s_handles (h_s C st') = s_handles (h_s C st) /\
  (forall x e, hget (s_handles (h_s C st)) x = Some e ->
     ref_ok (h_s C st') (eref e) /\
     forall a, bfun_of (h_s C st') (eref e) a = bfun_of (h_s C st) (eref e) a) /\
  (forall a b, a < b < length order ->
     nth (nth a order 0) (s_v2l (h_s C st')) 0 < nth (nth b order 0) (s_v2l (h_s C st')) 0).
Proof.
  intros st order st' I Pre E. destruct (step_ok st _ I Pre) as [st1 [E1 [I1 [[_ [F2 _]] P]]]].
  rewrite E in E1. inversion E1; subst st1. simpl in P. destruct P as [P1 P2].
  split; [exact I1|]. split; [exact P1|]. split; [|split; [|exact P2]].
  - simpl in E. destruct (Nat.leb (length order) 1); [inversion E; reflexivity|].
    destruct (order_ok_b _ order); [|discriminate].
    destruct (nat_list_eqb _ _); inversion E; reflexivity.
  - intros x e Eg. apply F2. left. exists (x, e). split; [apply hget_In; exact Eg | reflexivity].
Qed.

(** ** The request checker *)

Lemma nodup_b_spec : forall l, nodup_b l = true <-> NoDup l.
Proof.
  induction l as [|x r IH]; simpl.
  - split; [constructor | reflexivity].
  - rewrite andb_true_iff, negb_true_iff, IH. split.
    + intros [A B]. constructor; [|exact B]. intros Hin.
      assert (X : existsb (Nat.eqb x) r = true) by (apply existsb_exists; exists x; split; [exact Hin | apply Nat.eqb_refl]).
      congruence.
    + intros Hnd. inversion Hnd as [|? ? Hx Hr]; subst. split; [|exact Hr].
      destruct (existsb (Nat.eqb x) r) eqn:X; [|reflexivity]. exfalso. apply Hx.
      apply existsb_exists in X. destruct X as [y [Hy E]]. apply Nat.eqb_eq in E. subst. exact Hy.
Qed.

Lemma occupied_b_spec : forall st k, occupied_b C st k = true <-> occupied C st k.
Proof.
  intros st k. unfold occupied_b, occupied. destruct (hslot C st k) as [r|].
  - split; [eauto | reflexivity].
  - split; [discriminate | intros [r E]; discriminate].
Qed.

Theorem hop_pre_b_spec : forall st o, hop_pre_b C st o = true <-> hop_pre st o.
Proof.
  intros st o. pose proof (occupied_b_spec st) as Ho.
  destruct o; simpl;
    [ split; trivial | apply Nat.ltb_lt | apply Ho | apply andb_iff; apply Ho | apply andb3_iff; apply Ho
    | apply andb_iff; apply Ho | apply andb3_iff; apply Ho | apply andb_iff; apply Ho
    | apply andb_iff; [apply nodup_b_spec|] | apply andb_iff; [apply Ho|]
    | apply Ho | split; trivial | split; trivial | split; trivial | ].
  - (* HNewSubst *)
    rewrite forallb_forall. split.
    + intros B v k Hin. apply (andb_iff _ _ _ _ (Nat.ltb_lt _ _) (Ho k)). apply (B (v, k) Hin).
    + intros B [v k] Hin. apply (andb_iff _ _ _ _ (Nat.ltb_lt _ _) (Ho k)). apply (B v k Hin).
  - (* HSubst *)
    destruct (hreg_fn (h_reg C st) id) as [p|]; split.
    + intros _. exists p. reflexivity.
    + reflexivity.
    + discriminate.
    + intros [p X]. discriminate.
  - (* HSetVarOrder *)
    apply SortOrderProofs.order_ok_b_valid.
Qed.

Theorem hops_pre_b_spec : forall ops st, hops_pre_b gt C cget cadd cempty st ops = true -> hops_pre st ops.
Proof.
  intros ops st. apply (pres_b_sound _ _ hstep (fun _ => True) hop_pre (hop_pre_b C)); [auto | | exact I].
  intros st0 o _. apply hop_pre_b_spec.
Qed.

(** a history accepted by the checker runs to completion, in a reachable state *)
Theorem hrun_checked : forall n ops, hops_pre_b gt C cget cadd cempty (hinit n) ops = true ->
  exists st, hrun (hinit n) ops = Some st /\ hreach n st.
Proof.
  intros n ops Hb.
  exact (run_reach _ _ hstep HInv hop_pre hstep_inv (hinit n) ops (hinit_inv n) (hops_pre_b_spec ops _ Hb)).
Qed.

End Thms.
