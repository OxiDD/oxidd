(** * Transport lemmas for the ZBDD manager state machine (Mgr/HistoryZ.v)

    How the invariants and denotations of the per-operation ZBDD packages
    behave under the state changes that are not "run an algorithm":

    - [zbfun_fam]: the Boolean function of a reference is the membership test
      of the set of true variables (written as a level list) in its family;
    - [set_handles] / [extends]: the Boolean function is unchanged;
    - [zsubset_okB]: subset0 / subset1 / change under the full cache invariant;
    - [zadd_vars_facts]: [add_vars] + chain rebuild: [ZbddOK], complete chain, every
      old reference keeps its FAMILY, its Boolean function becomes "old function
      and all new variables false"; [zcacheokb_grows]: the cache invariant survives
      in a grown table if no Restrict entry is keyed with the new number of levels
      unless that number is unchanged (Restrict entries are keyed by the number of
      levels and say something only for the table's own number);
    - [zgc_facts]: [gc_model] on the table whose roots are the handles and the
      chain: [ZbddOK], complete chain, families of the roots unchanged;
    - [zreorder_facts]: [set_var_order_model_z]: [ZbddOK], complete chain, handles
      and their functions of the variables unchanged, requested order. *)

From Coq Require Import List NArith PArith Bool Arith Lia FMapPositive.
From OxiVerif Require Import DD.Table DD.TableExtra DD.TableProofs DD.Sem DD.Build DD.BuildProofs
  DD.Apply DD.ApplyProofs DD.ApplyEvalProofs DD.ConfigApply DD.CanonZbdd DD.FamSpec DD.FamSpecProofs
  DD.ZbddOps DD.ZbddOpsProofs DD.ZbddSubsetProofs DD.ZbddSoundProofs DD.ZbddVars DD.ZbddVarsProofs
  DD.ZbddBool DD.ZbddBoolProofs DD.ZbddXorProofs DD.ZbddIteProofs DD.ZbddEvalProofs
  DD.ConfigZbddRun DD.ConfigZbddIndep
  Mgr.SortOrder Mgr.SortOrderProofs Mgr.LevelSwap Mgr.LevelSwapProofs Mgr.LevelSwapOrder
  Mgr.LevelSwapZ Mgr.LevelSwapZProofs Mgr.LevelSwapZChain Mgr.LevelSwapZOrder Mgr.LevelSwapZFam
  Mgr.OomGc Mgr.History Mgr.HistoryBase Mgr.HistoryGc Mgr.HistoryCBase Mgr.HistoryZ Mgr.HistoryZCache.
Import ListNotations.

Local Arguments hset : simpl never.
Local Arguments hget : simpl never.
Local Arguments hdel : simpl never.

(** ** The two readings of an assignment as a choice function agree on the levels *)

Lemma choice_asg : forall s a l, l < nlevels s -> choice_of s a l = asg_choice s a l.
Proof.
  intros s a l Hl. unfold choice_of, asg_choice.
  rewrite (nth_error_nth' (s_l2v s) 0 Hl). reflexivity.
Qed.

Lemma true_levels_choice_asg : forall s a,
  true_levels (choice_of s a) 0 (nlevels s) = set_levels s a.
Proof.
  intros s a. unfold set_levels. apply true_levels_ext. intros l Hl. apply choice_asg. lia.
Qed.

(** ** The Boolean function of a reference = membership in its family *)

Theorem zbfun_fam : forall s r F a, ZbddOK s -> ref_ok s r -> fam_of s r = Some F ->
  zbfun_of s r a = fmem (set_levels s a) F.
Proof.
  intros s r F a B O EF. unfold zbfun_of, zview_of.
  rewrite (bool_view s (zo_wf s B) (zo_kind s B) r _ F O (choice_of_ok s a (zo_kind s B)) EF).
  unfold fam_bool. rewrite true_levels_choice_asg. destruct (fmem (set_levels s a) F); reflexivity.
Qed.

Lemma zbfun_eval_vars : forall s r a, ZbddOK s -> ref_ok s r ->
  eval_vars s (E r) a = Some (if zbfun_of s r a then 1%N else 0%N).
Proof.
  intros s r a B O. destruct (fam_of_total s (zo_wf s B) (zo_kind s B) r O) as [F EF].
  rewrite (eval_vars_fam s (E r) a F (zo_wf s B) (zo_kind s B) O EF).
  rewrite (zbfun_fam s r F a B O EF). reflexivity.
Qed.

Lemma semz_set_handles : forall s hs f lvl r c, semz (set_handles s hs) f lvl r c = semz s f lvl r c.
Proof.
  intros s hs. induction f as [|f IH]; intros lvl r c; destruct r as [t|id]; try reflexivity.
  rewrite !semz_S. change (find_node (set_handles s hs) id) with (find_node s id).
  destruct (find_node s id) as [nd|]; [|reflexivity].
  destruct (Nat.ltb (nlevel nd) lvl); [reflexivity|].
  destruct (all_lo c lvl (nlevel nd - lvl)); [|reflexivity].
  destruct (nth_error (nchildren nd) (c (nlevel nd))); [apply IH | reflexivity].
Qed.

Lemma zbfun_of_set_handles : forall s hs r a, zbfun_of (set_handles s hs) r a = zbfun_of s r a.
Proof.
  intros s hs r a. unfold zbfun_of, zview_of.
  change (nlevels (set_handles s hs)) with (nlevels s).
  change (choice_of (set_handles s hs) a) with (choice_of s a).
  rewrite semz_set_handles. reflexivity.
Qed.

Lemma zbfun_of_extends : forall s s' r a, ZbddOK s -> ZbddOK s' -> extends s s' -> ref_ok s r ->
  zbfun_of s' r a = zbfun_of s r a.
Proof.
  intros s s' r a B B' X O. unfold zbfun_of. rewrite (choice_of_ext s s' a X).
  rewrite (zview_extends s s' r _ B B' X O (choice_of_ok s a (zo_kind s B))). reflexivity.
Qed.

Lemma l2v_spec : forall s l, WF s -> l < nlevels s ->
  exists v, nth_error (s_l2v s) l = Some v /\ nth_error (s_v2l s) v = Some l /\ v < nlevels s.
Proof.
  intros s l H Hl. destruct (wf_perm_l2v s H l Hl) as [v [E1 E2]]. exists v.
  split; [exact E1|]. split; [exact E2|].
  unfold nlevels. rewrite <- (wf_perm_len s H). apply nth_error_Some. congruence.
Qed.

(** a function of a table reads only the table's variables *)
Lemma zbfun_of_local : forall s r a a', WF s -> (forall v, v < nlevels s -> a v = a' v) ->
  zbfun_of s r a = zbfun_of s r a'.
Proof.
  intros s r a a' H Hag. unfold zbfun_of, zview_of.
  rewrite (semz_ext_lt s H _ 0 r (choice_of s a) (choice_of s a')); [reflexivity|].
  intros l [_ Hl]. unfold choice_of. destruct (l2v_spec s l H Hl) as [v [E0 [_ Hv]]]. rewrite E0, (Hag _ Hv). reflexivity.
Qed.

(** ** Canonicity in terms of functions of the variables *)

(** every level-indexed choice is the choice of an assignment, as far as the levels go *)
Lemma choice_is_asg : forall s c, WF s -> s_kind s = KZbdd -> choice_ok s c ->
  exists a, forall l, l < nlevels s -> choice_of s a l = c l.
Proof.
  intros s c H Hk Hc. exists (fun v => Nat.eqb (c (nth v (s_v2l s) 0)) 0).
  intros l Hl. unfold choice_of. destruct (l2v_spec s l H Hl) as [v [E0 [E1 _]]]. rewrite E0, (nth_error_nth _ _ 0 E1).
  pose proof (choice_lt2 s Hk c Hc l) as Hlt.
  destruct (Nat.eqb_spec (c l) 0) as [->|Hne]; [reflexivity | lia].
Qed.

Theorem zbfun_canon : forall s r1 r2, ZbddOK s -> ref_ok s r1 -> ref_ok s r2 ->
  (forall a, zbfun_of s r1 a = zbfun_of s r2 a) -> r1 = r2.
Proof.
  intros s r1 r2 B O1 O2 Heq. pose proof (zo_wf s B) as H. pose proof (zo_kind s B) as Hk.
  apply (zview_canon s r1 r2 B O1 O2). intros c Hc.
  destruct (choice_is_asg s c H Hk Hc) as [a Ha].
  assert (Hx : forall r, zview_of s r c = zview_of s r (choice_of s a)).
  { intros r. unfold zview_of. apply (semz_ext_lt s H). intros l [_ Hl]. symmetry. apply Ha. exact Hl. }
  rewrite !Hx.
  destruct (zview_total s r1 _ B O1 (choice_of_ok s a Hk)) as [b1 E1].
  destruct (zview_total s r2 _ B O2 (choice_of_ok s a Hk)) as [b2 E2].
  rewrite E1, E2. f_equal.
  rewrite <- (zbfun_of_view s r1 a b1 E1), <- (zbfun_of_view s r2 a b2 E2). apply Heq.
Qed.

(** ** "All new variables false" *)

Definition newfalse (n n' : nat) (a : asg) : bool := forallb (fun v => negb (a v)) (seq n (n' - n)).

Lemma newfalse_same : forall n a, newfalse n n a = true.
Proof. intros n a. unfold newfalse. rewrite Nat.sub_diag. reflexivity. Qed.

Lemma newfalse_spec : forall n n' a, newfalse n n' a = true <-> forall v, n <= v < n' -> a v = false.
Proof.
  intros n n' a. unfold newfalse. rewrite forallb_forall. split.
  - intros Hf v Hv. specialize (Hf v). rewrite in_seq in Hf. specialize (Hf ltac:(lia)).
    destruct (a v); [discriminate | reflexivity].
  - intros Hf v Hv. apply in_seq in Hv. rewrite (Hf v) by lia. reflexivity.
Qed.

Lemma newfalse_trans : forall n0 n1 n2 a, n0 <= n1 -> n1 <= n2 ->
  newfalse n0 n1 a && newfalse n1 n2 a = newfalse n0 n2 a.
Proof.
  intros n0 n1 n2 a H01 H12. unfold newfalse.
  replace (n2 - n0) with ((n1 - n0) + (n2 - n1)) by lia.
  rewrite seq_app, forallb_app. replace (n0 + (n1 - n0)) with n1 by lia. reflexivity.
Qed.

(** ** Families over variables: a set of variables [a] (false outside the
    manager's variables) is a member iff the Boolean function is true at [a] *)

Definition supp (n : nat) (a : asg) : Prop := forall v, n <= v -> a v = false.

Definition vmem (s : snap) (r : ref) (a : asg) : Prop :=
  supp (nlevels s) a /\ zbfun_of s r a = true.

Theorem vmem_fam : forall s r F a, ZbddOK s -> ref_ok s r -> fam_of s r = Some F ->
  (vmem s r a <-> supp (nlevels s) a /\ In (set_levels s a) F).
Proof.
  intros s r F a B O EF. unfold vmem. rewrite (zbfun_fam s r F a B O EF), fmem_spec. reflexivity.
Qed.

(** the Boolean statement of the frame implies the family statement *)
Lemma vmem_stable : forall s s' r, nlevels s <= nlevels s' ->
  (forall a, zbfun_of s' r a = zbfun_of s r a && newfalse (nlevels s) (nlevels s') a) ->
  forall a, vmem s' r a <-> vmem s r a.
Proof.
  intros s s' r Hn Hb a. unfold vmem. rewrite Hb, andb_true_iff, newfalse_spec. split.
  - intros [Hs [Hf Hnew]]. split; [|exact Hf]. intros v Hv.
    destruct (Nat.lt_ge_cases v (nlevels s')) as [Hlt|Hge]; [apply Hnew; lia | apply Hs; exact Hge].
  - intros [Hs Hf]. split; [intros v Hv; apply Hs; lia|]. split; [exact Hf|].
    intros v Hv. apply Hs. lia.
Qed.

(** ** subset0 / subset1 / change under the full cache invariant *)

Section SubsetB.
Variable C : Type.
Variable cget : C -> N -> list ref -> list nat -> option ref.
Variable cadd : C -> N -> list ref -> list nat -> ref -> C.
Hypothesis Hlossy : zlossy C cget cadd.

Lemma zsubset_served : forall op var vl fuel s c f s' c' r,
  zsubset C cget cadd fuel s c op f var vl = Some (s', c', r) ->
  served_by C cget c c' (fun k => k = zsub_code op).
Proof.
  intros op var vl fuel s c f s' c' r E.
  refine (zsubset_pres C cget cadd (fun c0 => served_by C cget c c0 (fun k => k = zsub_code op))
            (fun k _ => k = zsub_code op) _ op var vl eq_refl fuel s c f s' c' r E (served_refl C cget c _)).
  intros c0 k a m x Hk Hs. apply (served_trans C cget c c0 _ _ Hs). apply (served_add C cget cadd Hlossy). exact Hk.
Qed.

Theorem zsubset_okB : forall op var vl fuel s c f P,
  ZbddOK s -> ZCacheOKB C cget s c -> ZDen s f P -> nth_error (s_v2l s) var = Some vl ->
  nlevels s - rlevel s f < fuel ->
  zresult_okB C cget s (zsubset C cget cadd fuel s c op f var vl) (psub op vl P).
Proof.
  intros op var vl fuel s c f P B O DF Ev Hf.
  destruct (zsubset_ok C cget cadd Hlossy op var vl fuel s c f P B (zcacheokb_ok C cget s c O) DF Ev Hf)
    as (s' & c' & r & E & B' & X & O' & D).
  exists s', c', r. split; [exact E|]. split; [exact B'|]. split; [exact X|]. split; [|exact D].
  intros code args nums x Ex.
  destruct (zsubset_served op var vl fuel s c f s' c' r E _ _ _ _ Ex) as [E0| ->].
  - apply (zcacheokb_extends C cget s s' c B X O _ _ _ _ E0).
  - split; [apply (O' _ _ _ _ Ex)|]. apply zentry_x_other; destruct op; discriminate.
Qed.

End SubsetB.

(** ** Growing tables ([add_vars]) *)

Lemma ref_ok_grows : forall s s' r, grows s s' -> ref_ok s r -> ref_ok s' r.
Proof.
  intros s s' [t|id] G O; simpl in *.
  - unfold term_val in *. rewrite (gr_terms _ _ G). exact O.
  - destruct O as [nd E0]. exists nd. apply (gr_nodes _ _ G id nd E0).
Qed.

Lemma zden_grows : forall s s' r P, ZbddOK s -> grows s s' -> ZDen s r P -> ZDen s' r P.
Proof.
  intros s s' r P B G [O [F [EF HF]]]. split; [apply (ref_ok_grows s s' r G O)|].
  exists F. split; [|exact HF].
  rewrite (grows_fam s s' r (zo_wf s B) (zo_kind s B) G O). exact EF.
Qed.

Lemma zcube_grows : forall s s' M lvl vars, grows s s' -> nlevels s' = nlevels s ->
  ZCube s M lvl vars -> ZCube s' M lvl vars.
Proof.
  intros s s' M lvl vars G Hn Hc.
  induction Hc as [lvl t Et Hm|lvl id nd hi En Ec Hl Hm Hd _ IH|lvl id nd hi lo En Ec Hne He Hl Hm Hd _ IH].
  - apply ZC_term; [unfold term_val in *; rewrite (gr_terms _ _ G); exact Et | rewrite Hn; exact Hm].
  - apply (ZC_dc s' M lvl id nd hi (gr_nodes _ _ G id nd En) Ec Hl Hm Hd IH).
  - apply (ZC_pos s' M lvl id nd hi lo (gr_nodes _ _ G id nd En) Ec Hne); [|exact Hl | exact Hm | exact Hd | exact IH].
    destruct (is_empty_b_true s lo He) as [t [-> Et]].
    unfold is_empty_b, is_term_with, term_val in *. rewrite (gr_terms _ _ G), Et. reflexivity.
Qed.

(** the cache invariant in a grown table: Restrict entries are keyed by the number of
    levels and say something only for the table's own number; an entry keyed with the
    number of levels of the grown table must not exist unless the number is unchanged *)
Lemma zcacheokb_grows : forall C (cget : C -> N -> list ref -> list nat -> option ref) s s' c,
  ZbddOK s -> grows s s' ->
  (forall var vl, nth_error (s_v2l s) var = Some vl -> nth_error (s_v2l s') var = Some vl) ->
  (forall a r, cget c zcode_restrict a [nlevels s'] = Some r -> nlevels s' = nlevels s) ->
  ZCacheOKB C cget s c -> ZCacheOKB C cget s' c.
Proof.
  intros C cget s s' c B G Hv Hser O code args nums r E.
  destruct (O _ _ _ _ E) as [A A']. split.
  - unfold zentry_ok in *. destruct args as [|f [|g [|x rest]]]; auto.
    + destruct nums as [|var [|y rest]]; auto.
      intros o Hc. destruct (A o Hc) as [P [vl [Ev [D1 D2]]]]. exists P, vl.
      split; [apply Hv; exact Ev|]. split; eapply zden_grows; eauto.
    + destruct nums as [|var rest]; auto.
      intros o Hc. destruct (A o Hc) as [P [Q [D1 [D2 D3]]]]. exists P, Q.
      split; [|split]; eapply zden_grows; eauto.
  - unfold zentry_x in *. destruct args as [|f [|g [|h [|x rest]]]]; auto; destruct nums as [|v [|w rest']]; auto.
    + intros Hc. destruct (A' Hc) as (P & Q & DF & DG & DR). exists P, Q.
      split; [|split]; eapply zden_grows; eauto.
    + intros Hc Hv'. subst code v. pose proof (Hser _ _ E) as Hn.
      destruct (A' eq_refl Hn) as (P & id & nd & M & DF & -> & En & Hcu & DR).
      exists P, id, nd, M. split; [eapply zden_grows; eauto|]. split; [reflexivity|].
      split; [apply (gr_nodes _ _ G); exact En|]. split; [apply (zcube_grows s s' _ _ _ G Hn Hcu)|].
      rewrite Hn. eapply zden_grows; eauto.
    + intros Hc. destruct (A' Hc) as (P & Q & R & DF & DG & DH & DR). exists P, Q, R.
      split; [|split; [|split]]; eapply zden_grows; eauto.
Qed.

Lemma all_lo_newfalse : forall (c : nat -> nat) (a : asg) k from,
  (forall l, from <= l < from + k -> c l = if a l then 0 else 1) ->
  all_lo c from k = forallb (fun v => negb (a v)) (seq from k).
Proof.
  intros c a. induction k as [|k IH]; intros from Hc; simpl; [reflexivity|].
  rewrite (Hc from) by lia. rewrite (IH (S from)) by (intros l Hl; apply Hc; lia).
  destruct (a from); reflexivity.
Qed.

Theorem zadd_vars_facts : forall s k, ZbddOK s ->
  exists s' ch, zadd_vars s k = Some (s', ch) /\ ZbddOK s' /\ ZChainOK s' /\ grows s s' /\
    nlevels s' = nlevels s + k /\
    s_v2l s' = s_v2l s ++ seq (nlevels s) k /\ s_l2v s' = s_l2v s ++ seq (nlevels s) k /\
    s_handles s' = s_handles s /\
    forall r, ref_ok s r ->
      ref_ok s' r /\ fam_of s' r = fam_of s r /\
      forall a, zbfun_of s' r a = zbfun_of s r a && newfalse (nlevels s) (nlevels s') a.
Proof.
  intros s k B. pose proof (zo_wf s B) as H. pose proof (zo_kind s B) as Hk.
  destruct (zchain_after_add_vars s k B) as (s' & ch & E & B' & Hc' & Hn & _).
  destruct (zadd_vars_ok s k B) as (s2 & ch2 & E2 & _ & G & _ & Hv2l & Hl2v & Hfam & _).
  rewrite E in E2. inversion E2; subst s2 ch2. clear E2.
  exists s', ch. split; [exact E|]. split; [exact B'|]. split; [exact Hc'|]. split; [exact G|].
  split; [exact Hn|]. split; [exact Hv2l|]. split; [exact Hl2v|]. split.
  { destruct (add_levels_ok s k B) as (B1 & _).
    destruct (ztaut_chain_ok (add_levels s k) B1) as (s3 & ch3 & E3 & _ & X3 & _).
    unfold zadd_vars in E. rewrite E3 in E. inversion E; subst s3 ch3.
    rewrite (ext_handles _ _ X3). reflexivity. }
  intros r O. pose proof (ref_ok_grows s s' r G O) as O'.
  split; [exact O'|]. split; [apply (Hfam r O)|]. intros a.
  destruct (fam_of_total s H Hk r O) as [F EF].
  assert (EF' : fam_of s' r = Some F) by (rewrite (Hfam r O); exact EF).
  rewrite (zbfun_fam s' r F a B' O' EF'), (zbfun_fam s r F a B O EF).
  unfold set_levels. rewrite Hn.
  change (fmem (true_levels (asg_choice s' a) 0 (nlevels s + k)) F)
    with (fam_bool (nlevels s + k) F (asg_choice s' a)).
  rewrite fam_bool_more.
  - unfold fam_bool. f_equal.
    + f_equal. apply true_levels_ext. intros l Hl. unfold asg_choice. rewrite Hl2v.
      rewrite app_nth1 by (fold (nlevels s); lia). reflexivity.
    + unfold newfalse. replace (nlevels s + k - nlevels s) with k by lia.
      apply all_lo_newfalse. intros l Hl. unfold asg_choice. rewrite Hl2v.
      rewrite app_nth2 by (fold (nlevels s); lia). fold (nlevels s).
      rewrite seq_nth by lia. replace (nlevels s + (l - nlevels s)) with l by lia. reflexivity.
  - intros l. unfold asg_choice. destruct (a (nth l (s_l2v s') 0)); lia.
  - intros S HS. apply (fam_of_members s H Hk r F S EF HS).
Qed.

(** ** Garbage collection with the chain as additional roots *)

Lemma zchain_roots_In : forall s h, In h (zchain_roots s) ->
  exists l t, l <= nlevels s /\ ztaut s l = Some t /\ h = (0%N, E t).
Proof.
  intros s h Hin. unfold zchain_roots in Hin. apply in_flat_map in Hin.
  destruct Hin as [l [Hl Hh]]. apply in_seq in Hl.
  destruct (ztaut s l) as [t|] eqn:Et; [|destruct Hh].
  destruct Hh as [<-|[]]. exists l, t. split; [lia|]. auto.
Qed.

Lemma zchain_roots_taut : forall s l t, l <= nlevels s -> ztaut s l = Some t -> In (0%N, E t) (zchain_roots s).
Proof.
  intros s l t Hl Et. unfold zchain_roots. apply in_flat_map. exists l.
  split; [apply in_seq; lia|]. rewrite Et. left. reflexivity.
Qed.

Lemma with_chain_ok : forall s, ZbddOK s -> ZbddOK (with_chain s).
Proof.
  intros s B. unfold with_chain. apply zbddok_set_handles; [exact B|].
  intros h Hin. apply in_app_iff in Hin. destruct Hin as [Hin|Hin].
  - apply (z_handle_ok s h B Hin).
  - destruct (zchain_roots_In s h Hin) as (l & t & _ & Et & ->). simpl.
    split; [|reflexivity]. apply (zden_ok _ _ _ (ztaut_den s l t B Et)).
Qed.

Theorem zgc_facts : forall s, ZbddOK s -> ZChainOK s ->
  let sg := set_handles (gc_model (with_chain s)) (s_handles s) in
  ZbddOK sg /\ ZChainOK sg /\ extends sg s /\
  (forall h, In h (s_handles s) -> ref_ok sg (eref (snd h))) /\
  (forall id nd, find_node sg id = Some nd ->
     find_node s id = Some nd /\ reachable s (handle_refs (with_chain s)) (RN id)).
Proof.
  intros s B Hc. set (s1 := with_chain s). set (g := gc_model s1). simpl.
  pose proof (with_chain_ok s B) as B1.
  pose proof (gc_model_collected s1 (zo_wf s1 B1)) as Cg. fold g in Cg.
  pose proof (collected_wf_gen s1 g (zo_wf s1 B1) Cg) as Hg.
  pose proof (collected_sub_gen s1 g Cg) as Xg.
  assert (Bg : ZbddOK g).
  { constructor; [exact Hg | rewrite (co_kind s1 g Cg); apply (zo_kind s1 B1) | | | ].
    - intros t v. rewrite (cw_term_val s1 g Cg). apply (zo_codes s1 B1).
    - destruct (zo_empty s1 B1) as [t Et]. exists t. rewrite (cw_term_val s1 g Cg). exact Et.
    - destruct (zo_base s1 B1) as [t Et]. exists t. rewrite (cw_term_val s1 g Cg). exact Et. }
  assert (Hroot : forall h, In h (s_handles s1) -> ref_ok g (eref (snd h))).
  { intros h Hh. rewrite <- (co_handles s1 g Cg) in Hh. apply (wf_handles g Hg h Hh). }
  assert (Hh : forall h, In h (s_handles s) -> ref_ok g (eref (snd h))).
  { intros h Hin. apply Hroot. unfold s1, with_chain. simpl. apply in_app_iff. left. exact Hin. }
  assert (Bsg : ZbddOK (set_handles g (s_handles s))).
  { apply zbddok_set_handles; [exact Bg|]. intros h Hin.
    split; [apply Hh; exact Hin | apply (z_handle_ok s h B Hin)]. }
  split; [exact Bsg|]. split; [|split; [|split]].
  - apply zchain_set_handles.
    destruct (ztaut_total s 0 Hc) as [t Et].
    pose proof (ztaut_den s 0 t B Et) as Dt. rewrite Nat.min_0_l in Dt.
    assert (Ot : ref_ok g t).
    { apply (Hroot (0%N, E t)). unfold s1, with_chain. simpl. apply in_app_iff. right.
      apply (zchain_roots_taut s 0 t); [lia | exact Et]. }
    apply (zchain_of_den g t Bg).
    assert (Hn : nlevels g = nlevels s) by (rewrite (cw_nlevels s1 g Cg); reflexivity).
    rewrite Hn.
    apply (zden_restrict g s1 t _ Bg Xg Ot). apply (proj1 (zden_set_handles s _ t _) Dt).
  - constructor.
    + change (s_kind s = s_kind g). rewrite (co_kind s1 g Cg). reflexivity.
    + change (s_terms s = s_terms g). rewrite (co_terms s1 g Cg). reflexivity.
    + change (s_v2l s = s_v2l g). rewrite (co_v2l s1 g Cg). reflexivity.
    + change (s_l2v s = s_l2v g). rewrite (co_l2v s1 g Cg). reflexivity.
    + reflexivity.
    + intros id nd E0. apply (cw_old s1 g Cg id nd E0).
  - exact Hh.
  - intros id nd E0. change (find_node g id = Some nd) in E0.
    destruct (proj1 (co_nodes s1 g Cg id nd) E0) as [E1 R1]. split; [exact E1|].
    clear - R1. remember (RN id) as q eqn:Eq. clear Eq.
    induction R1 as [q Hin|pid pnd e R1 IH Ep He]; [apply reach_root; exact Hin|].
    apply (reach_child _ _ pid pnd e IH Ep He).
Qed.

(** ** [set_var_order_model_z] in the vocabulary of the state machine *)

Theorem zreorder_facts : forall s order, ZbddOK s -> ZChainOK s -> NoDup order ->
  Forall (fun v => v < nlevels s) order ->
  let s' := set_var_order_model_z s order in
  ZbddOK s' /\ ZChainOK s' /\ nlevels s' = nlevels s /\ s_handles s' = s_handles s /\
  (forall h, In h (s_handles s) ->
     ref_ok s' (eref (snd h)) /\ forall a, zbfun_of s' (eref (snd h)) a = zbfun_of s (eref (snd h)) a) /\
  (forall a b, a < b < length order ->
     nth (nth a order 0) (s_v2l s') 0 < nth (nth b order 0) (s_v2l s') 0).
Proof.
  intros s order B Hc Hnd Hr. simpl.
  destruct (set_var_order_model_z_correct s order B Hnd Hr) as [B' [_ [Hn [Hh [Hev _]]]]].
  split; [exact B'|]. split; [|split; [exact Hn|split; [exact Hh|split]]].
  - destruct (snd (bubble_sort (sort_order (nlevels s) (map (fun v => nth v (s_v2l s) 0) order)))) as [|k sw] eqn:Esw.
    + unfold set_var_order_model_z. rewrite Esw. exact Hc.
    + destruct (set_var_order_model_z_chain s order B Hnd Hr) as [ch [Hlen Hch]]; [rewrite Esw; discriminate|].
      destruct (nth_error ch 0) as [t|] eqn:Et; [|apply nth_error_None in Et; lia].
      destruct (Hch 0 t Et) as [Ot [F [EF Hq]]].
      apply (zchain_of_den _ t B'). split; [exact Ot|]. exists F. split; [exact EF|].
      intros S. rewrite (Hq S), in_f_powerset, Hn. unfold pall. rewrite Nat.sub_0_r. reflexivity.
  - intros h Hin. destruct (z_handle_ok s h B Hin) as [O T].
    assert (O' : ref_ok (set_var_order_model_z s order) (eref (snd h))).
    { apply (wf_handles _ (zo_wf _ B')). rewrite Hh. exact Hin. }
    split; [exact O'|]. intros a. destruct (Hev h a Hin) as [Ee _].
    assert (Eh : snd h = E (eref (snd h))) by (apply edge_ext; [reflexivity | exact T]).
    rewrite Eh in Ee. rewrite (zbfun_eval_vars _ _ a B' O'), (zbfun_eval_vars s _ a B O) in Ee.
    destruct (zbfun_of (set_var_order_model_z s order) (eref (snd h)) a), (zbfun_of s (eref (snd h)) a);
      try reflexivity; inversion Ee.
  - apply (set_var_order_model_z_respects s order B Hnd Hr).
Qed.
