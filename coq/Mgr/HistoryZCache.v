(** * The ZBDD apply cache as the code keys it: Restrict entries carry the number of levels

    [ZBDDOp::Restrict] entries of the apply cache are keyed by the operand
    edges AND the number of levels of the manager (oxidd-rules-zbdd/src/apply_rec.rs
    [restrict]: [get_extended] / [add_extended] with [manager.num_levels()] as
    numeric operand, /repo f8637cd): the restriction by a literal cube depends
    on the number of levels (through the cube's Base terminal and the tautology
    chain), and [add_vars] does not clear the apply cache.  The per-operation
    model DD/ZbddBool.v [zrestrict] has this key ([[f; vars]], [[nlevels s]]); the
    state machine runs it on the plain cache.

    - [z*_pres]: whatever property of the cache is preserved by every insertion
      the algorithms of a manager with [N0] levels can make (a Restrict entry is
      keyed with [[N0]]) is preserved by every algorithm (they only insert;
      [restrict] does not change the number of levels);
    - [znofuture n c]: no Restrict entry is keyed with a number of levels above
      [n] - preserved by the insertions of a manager with [n] levels, by
      clearing, and by [add_vars] (the number of levels only grows), so an entry
      keyed with the number of levels after [add_vars] was inserted at that number;
    - the view [zcgetN n] / [zcaddN n] (Mgr/HistoryZ.v) that appends [n] to the
      numeric operands of the Restrict code: [zlossyN] (the view of a lossy cache
      is lossy), [zrestrict_view]: [restrict] as it was before f8637cd
      ([zrestrict_unkeyed]) run on the cache seen through the view at the current
      number of levels IS the model [zrestrict] on the plain cache. *)

From Coq Require Import List NArith PArith Bool Arith Lia FMapPositive.
From OxiVerif Require Import DD.Table DD.TableProofs DD.Sem DD.Build DD.BuildProofs DD.Apply DD.FamSpec
  DD.ZbddOps DD.ZbddOpsProofs DD.ZbddSubsetProofs DD.ZbddBool DD.ZbddBoolProofs DD.ZbddXorProofs DD.ZbddIteProofs
  DD.ZbddRestrictProofs Mgr.HistoryZ.
Import ListNotations.

Section View.
Variable C : Type.
Variable cget : C -> N -> list ref -> list nat -> option ref.
Variable cadd : C -> N -> list ref -> list nat -> ref -> C.
Hypothesis Hlossy : zlossy C cget cadd.

Lemma zkeyN_inj : forall n code m m', zkeyN n code m = zkeyN n code m' -> m = m'.
Proof.
  intros n code m m' E. unfold zkeyN in E. destruct (N.eqb code zcode_restrict); [|exact E].
  apply app_inj_tail in E. apply E.
Qed.

Theorem zlossyN : forall n, zlossy C (zcgetN C cget n) (zcaddN C cadd n).
Proof.
  intros n c k a m r k' a' m' r' E. unfold zcgetN, zcaddN in *.
  destruct (Hlossy _ _ _ _ _ _ _ _ _ E) as [[-> [-> [Em ->]]]|E']; [left | right; exact E'].
  repeat split; try reflexivity. apply (zkeyN_inj n k m' m Em).
Qed.

(** no Restrict entry keyed with more than [n] levels *)
Definition znofuture (n : nat) (c : C) : Prop :=
  forall a m n' r, cget c zcode_restrict a (m ++ [n']) = Some r -> n' <= n.

(** an insertion a manager with [n] levels makes: a Restrict entry carries [[n]] *)
Lemma znofuture_add : forall n c k a m r, (k = zcode_restrict -> m = [n]) ->
  znofuture n c -> znofuture n (cadd c k a m r).
Proof.
  intros n c k a m r Hk Hf a' m' n' r' E.
  destruct (Hlossy _ _ _ _ _ _ _ _ _ E) as [[Ek [_ [Em _]]]|E']; [|apply (Hf a' m' n' r' E')].
  rewrite (Hk (eq_sym Ek)) in Em. change [n] with ([] ++ [n]) in Em. apply app_inj_tail in Em.
  destruct Em as [_ ->]. apply le_n.
Qed.

Lemma znofuture_mono : forall n n' c, n <= n' -> znofuture n c -> znofuture n' c.
Proof. intros n n' c Hn Hf a m k r E. specialize (Hf a m k r E). lia. Qed.

(** a cache without future keys holds no Restrict entry keyed with [n' > n] *)
Lemma znofuture_later : forall n n' c a r, znofuture n c -> n <= n' ->
  cget c zcode_restrict a [n'] = Some r -> n' = n.
Proof. intros n n' c a r Hf Hn E. pose proof (Hf a [] n' r E). lia. Qed.

End View.

(** ** The algorithms only insert *)

(** follows the branches of an unfolded algorithm through the hypotheses
    [_ = Some _]; the scrutinees that return a table (the calls) keep their equation *)
Ltac branches :=
  repeat match goal with
  | E : match ?x with _ => _ end = Some _ |- _ =>
    first [is_var x; destruct x
          | lazymatch type of x with context [snap] => destruct x eqn:? | _ => destruct x end];
    try discriminate E
  | E : (if ?x then _ else _) = Some _ |- _ => destruct x
  | E : Some _ = Some _ |- _ => injection E as E; subst
  end.

Lemma goi_nlevels : forall s lvl ch s' e, get_or_insert s lvl ch = (s', e) -> nlevels s' = nlevels s.
Proof.
  intros s lvl ch s' e E. unfold get_or_insert in E. destruct (find_dup s lvl ch); inversion E; reflexivity.
Qed.

Lemma zmk_node_nlevels : forall s lvl hi lo s' r, zmk_node s lvl hi lo = (s', r) -> nlevels s' = nlevels s.
Proof.
  intros s lvl hi lo s' r Hm. unfold zmk_node in Hm. destruct (is_empty_b s hi); [inversion Hm; reflexivity|].
  destruct (get_or_insert s lvl [E hi; E lo]) as [s1 e] eqn:Eg. inversion Hm; subst.
  apply (goi_nlevels _ _ _ _ _ Eg).
Qed.

Lemma zdc_wrap_nlevels : forall cnt level s e s' r, zdc_wrap level cnt s e = (s', r) -> nlevels s' = nlevels s.
Proof.
  induction cnt as [|k IH]; intros level s e s' r Hw; simpl in Hw; [inversion Hw; reflexivity|].
  destruct (get_or_insert s (level + k) [E e; E e]) as [s1 e1] eqn:Eg.
  rewrite (IH _ _ _ _ _ Hw). apply (goi_nlevels _ _ _ _ _ Eg).
Qed.

Lemma zrestrict_base_nlevels : forall fuel s vars level s' r,
  zrestrict_base fuel s vars level = Some (s', r) -> nlevels s' = nlevels s.
Proof.
  induction fuel as [|n IH]; intros s vars level s' r E; [discriminate|]. simpl in E.
  branches; try reflexivity;
  repeat match goal with
  | Hz : zrestrict_base n _ _ _ = Some _ |- _ => apply IH in Hz
  | Hw : zdc_wrap _ _ _ _ = _ |- _ => apply zdc_wrap_nlevels in Hw
  end; congruence.
Qed.

Section PresK.
Variable gt : ref -> ref -> bool.
Variable C : Type.
Variable cget : C -> N -> list ref -> list nat -> option ref.
Variable cadd : C -> N -> list ref -> list nat -> ref -> C.
Variable P : C -> Prop.
Variable K : N -> list nat -> Prop.
Hypothesis HK : forall c k a m r, K k m -> P c -> P (cadd c k a m r).
Hypothesis Kop : forall op, K (zop_code op) [].
Hypothesis Ksymm : K zcode_symm [].
Hypothesis Kite : K zcode_ite [].
(** a manager with [N0] levels keys its Restrict entries with [[N0]] *)
Variable N0 : nat.
Hypothesis Kr : K zcode_restrict [N0].

Lemma zapply_pres : forall op fuel s c f g s' c' r,
  zapply gt C cget cadd fuel s c op f g = Some (s', c', r) -> P c -> P c'.
Proof.
  intros op. pose proof (Kop op) as Ko.
  induction fuel as [|n IH]; intros s c f g s' c' r E Hc; [discriminate|].
  rewrite (zapply_S gt C cget cadd) in E. cbv zeta in E.
  branches; try (apply HK; [exact Ko|]); eauto.
Qed.

Lemma zapply_not_pres : forall fuel s c f s' c' r,
  zapply_not gt C cget cadd fuel s c f = Some (s', c', r) -> P c -> P c'.
Proof.
  intros fuel s c f s' c' r E Hc. unfold zapply_not in E. destruct (ztaut s 0); [|discriminate].
  apply (zapply_pres _ _ _ _ _ _ _ _ _ E Hc).
Qed.

Lemma zsymm_pres : forall fuel s c f g s' c' r,
  zsymm gt C cget cadd fuel s c f g = Some (s', c', r) -> P c -> P c'.
Proof.
  induction fuel as [|n IH]; intros s c f g s' c' r E Hc; [discriminate|].
  rewrite (zsymm_S gt C cget cadd) in E. cbv zeta in E.
  branches; try (apply HK; [exact Ksymm|]); eauto.
Qed.

Lemma zsubset_pres : forall op var vl, K (zsub_code op) [var] -> forall fuel s c f s' c' r,
  zsubset C cget cadd fuel s c op f var vl = Some (s', c', r) -> P c -> P c'.
Proof.
  intros op var vl Ks. induction fuel as [|n IH]; intros s c f s' c' r E Hc; [discriminate|].
  rewrite (zsubset_S C cget cadd) in E. unfold zsubset_below in E.
  branches; try (apply HK; [exact Ks|]); eauto.
Qed.

Lemma zapply_ite_pres : forall fuel s c f g h s' c' r,
  zapply_ite gt C cget cadd fuel s c f g h = Some (s', c', r) -> P c -> P c'.
Proof.
  induction fuel as [|n IH]; intros s c f g h s' c' r E Hc; [discriminate|].
  rewrite (zapply_ite_S gt C cget cadd) in E. cbv zeta in E.
  branches; try (apply HK; [exact Kite|]); eauto using zapply_pres.
Qed.

Lemma zapply_op_pres : forall op fuel s c f g s' c' r,
  zapply_op gt C cget cadd fuel s c op f g = Some (s', c', r) -> P c -> P c'.
Proof.
  intros op fuel s c f g s' c' r E Hc. destruct op; simpl in E; branches;
    eauto using zapply_pres, zsymm_pres, zapply_not_pres, zapply_ite_pres.
Qed.

Lemma znot_var_pres : forall fuel s c var s' c' r,
  znot_var gt C cget cadd fuel s c var = Some (s', c', r) -> P c -> P c'.
Proof.
  intros fuel s c var s' c' r E Hc. unfold znot_var in E. destruct (zvar s var) as [[s1 e]|]; [|discriminate].
  apply (zapply_not_pres _ _ _ _ _ _ _ E Hc).
Qed.

(** [restrict] keeps the number of levels, and keys what it inserts with it *)
Lemma zrestrict_pres : forall fuel s c f vars level s' c' r,
  zrestrict C cget cadd fuel s c f vars level = Some (s', c', r) ->
  nlevels s' = nlevels s /\ (nlevels s = N0 -> P c -> P c').
Proof.
  induction fuel as [|n IH]; intros s c f vars level s' c' r E; [discriminate|].
  rewrite (zrestrict_S C cget cadd) in E. cbv zeta in E. unfold zmk_node1 in E.
  branches;
  repeat match goal with
  | Hz : zrestrict _ _ _ n _ _ _ _ _ = Some _ |- _ => apply IH in Hz; destruct Hz
  | Hz : zrestrict_base _ _ _ _ = Some _ |- _ => apply zrestrict_base_nlevels in Hz
  | Hz : zmk_node _ _ _ _ = _ |- _ => apply zmk_node_nlevels in Hz
  end;
  (split; [congruence|]); intros Hn Hc; try (apply HK; [rewrite Hn; exact Kr|]);
  eauto using eq_trans.
Qed.

End PresK.

Section Pres.
Variable C : Type.
Variable cget : C -> N -> list ref -> list nat -> option ref.
Variable cadd : C -> N -> list ref -> list nat -> ref -> C.
Variable P : C -> Prop.
(** the insertions of a manager with [N0] levels *)
Variable N0 : nat.
Hypothesis HP : forall c k a m r, (k = zcode_restrict -> m = [N0]) -> P c -> P (cadd c k a m r).

Lemma zsubset_top_pres : forall op var fuel s c f s' c' r,
  zsubset_top C cget cadd fuel s c op f var = Some (s', c', r) -> P c -> P c'.
Proof.
  intros op var fuel s c f s' c' r E Hc. unfold zsubset_top in E.
  destruct (nth_error (s_v2l s) var) as [vl|]; [|discriminate].
  apply (zsubset_pres C cget cadd P _ HP op var vl ltac:(intros Hk; destruct op; discriminate Hk) _ _ _ _ _ _ _ E Hc).
Qed.

End Pres.

Lemma zrestrict_nlevels : forall C cget cadd fuel s c f vars level s' c' r,
  zrestrict C cget cadd fuel s c f vars level = Some (s', c', r) -> nlevels s' = nlevels s.
Proof.
  intros C cget cadd fuel s c f vars level s' c' r E.
  apply (zrestrict_pres C cget cadd (fun _ => True) (fun _ _ => True) (fun _ _ _ _ _ _ _ => I) 0 I _ _ _ _ _ _ _ _ _ E).
Qed.

(** ** The fix f8637cd, as a statement about the model: [restrict] as it was
    ([zrestrict_unkeyed], Mgr/HistoryZ.v) on the cache seen through the view
    that appends the current number of levels to the Restrict key is [restrict]
    as it is ([zrestrict], DD/ZbddBool.v) on the plain cache *)

Section ViewTie.
Variable C : Type.
Variable cget : C -> N -> list ref -> list nat -> option ref.
Variable cadd : C -> N -> list ref -> list nat -> ref -> C.

Theorem zrestrict_view : forall fuel s c f vars level,
  zrestrict_unkeyed C (zcgetN C cget (nlevels s)) (zcaddN C cadd (nlevels s)) fuel s c f vars level =
  zrestrict C cget cadd fuel s c f vars level.
Proof.
  induction fuel as [|n IH]; intros s c f vars level; [reflexivity|].
  rewrite (zrestrict_S C cget cadd). cbn [zrestrict_unkeyed].
  destruct (zget s f) as [[v|fnd]|]; [reflexivity| |reflexivity].
  destruct (zget s vars) as [vnode|]; [|reflexivity].
  destruct (nchildren fnd) as [|fhi [|flo [|x rest]]]; try reflexivity.
  cbv zeta.
  destruct (lcmp (vlevel vnode) (Some level)); try (rewrite IH; reflexivity).
  destruct (zkids vnode) as [[vhi vlo]|]; [|reflexivity].
  destruct (negb (ref_eqb vhi vlo)); [rewrite IH; reflexivity|].
  destruct (negb (Nat.eqb (nstored fnd) level)); [apply IH|].
  change (zcgetN C cget (nlevels s) c zcode_restrict [f; vars] [])
    with (cget c zcode_restrict [f; vars] [nlevels s]).
  destruct (cget c zcode_restrict [f; vars] [nlevels s]); [reflexivity|].
  rewrite IH.
  destruct (zrestrict C cget cadd n s c (eref fhi) vhi (S level)) as [[[s1 c1] hi]|] eqn:E1; [|reflexivity].
  rewrite <- (zrestrict_nlevels C cget cadd _ _ _ _ _ _ _ _ _ E1). rewrite IH.
  reflexivity.
Qed.

Theorem zrestrict_edge_view : forall fuel s c f vars,
  zrestrict_unkeyed C (zcgetN C cget (nlevels s)) (zcaddN C cadd (nlevels s)) fuel s c f vars 0 =
  zrestrict_edge C cget cadd fuel s c f vars.
Proof. intros. apply zrestrict_view. Qed.

End ViewTie.
