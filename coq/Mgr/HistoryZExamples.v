(** * A concrete ZBDD history through every kind of call, and the theorems instantiated on it

    [exz_ops]: 31 calls on a ZBDD manager with 3 variables covering all 17
    constructors of [zhop] (Boolean interface, set-family interface, make_node,
    clone / drop / gc, a reordering to [2; 0; 1], a variable added late, the
    same [restrict] call before the reordering, after it and after [add_vars]),
    run with an unbounded cache (never cleared by [add_vars]) and operand order
    "always swap".
    [exz_fresh]: a fresh manager with 4 variables that is only brought into the
    same variable order and builds the two operands, run WITHOUT cache and
    with operand order "never swap".
    [exz_keyed] / [exz_unkeyed]: restrict, add_vars, the same restrict - with the
    Restrict entries keyed by the number of levels (the state machine = the code
    since f8637cd) the second call is computed afresh and is the cofactor, the
    first call's entry stays in the cache under the old number of levels; with
    the un-keyed lookups of the defective variant [zrestrict_unkeyed] (Mgr/HistoryZ.v:
    the code before f8637cd) on the kept cache the second call is served the
    first one's entry, which is not the cofactor.
    Everything here is computed by [vm_compute] on the executable model; the
    theorems of Mgr/HistoryZThms.v / HistoryZSpec.v are then applied to the
    computed states (their hypotheses are satisfiable, their conclusions are
    about non-trivial tables). *)

From Coq Require Import List NArith PArith Bool Arith Lia FMapPositive.
From OxiVerif Require Import DD.Table DD.TableProofs DD.Sem DD.Build DD.Apply DD.ConfigApply DD.FamSpec
  DD.ZbddOps DD.ZbddOpsProofs DD.ZbddSoundProofs DD.ZbddBool DD.ZbddBoolProofs DD.ZbddVars DD.ZbddEvalProofs
  Mgr.History Mgr.HistoryExamples
  Mgr.HistoryZ Mgr.HistoryZBase Mgr.HistoryZFam Mgr.HistoryZProofs Mgr.HistoryZThms Mgr.HistoryZSpec.
Import ListNotations.
Local Open Scope N_scope.

(** ** Deciding equality of two diagram functions by enumeration
    ([all_asgs], [bfun_eqb] of Mgr/HistoryExamples.v) *)

Lemma zbfun_eq_enum : forall s1 s2 r1 r2 n, WF s1 -> WF s2 -> nlevels s1 = n -> nlevels s2 = n ->
  bfun_eqb n (zbfun_of s1 r1) (zbfun_of s2 r2) = true ->
  forall a, zbfun_of s1 r1 a = zbfun_of s2 r2 a.
Proof.
  intros s1 s2 r1 r2 n H1 H2 N1 N2 Hb a. destruct (all_asgs_cover n a) as [a' [Hin Hag]].
  unfold bfun_eqb in Hb. rewrite forallb_forall in Hb. specialize (Hb a' Hin). apply eqb_prop in Hb.
  rewrite (zbfun_of_local s1 r1 a a' H1) by (rewrite N1; exact Hag).
  rewrite (zbfun_of_local s2 r2 a a' H2) by (rewrite N2; exact Hag). exact Hb.
Qed.

Lemma zbfun_eq_enum_spec : forall s r n (F : bfun), WF s -> nlevels s = n ->
  (forall a a', (forall v, (v < n)%nat -> a v = a' v) -> F a = F a') ->
  bfun_eqb n (zbfun_of s r) F = true -> forall a, zbfun_of s r a = F a.
Proof.
  intros s r n F H N Hloc Hb a. destruct (all_asgs_cover n a) as [a' [Hin Hag]].
  unfold bfun_eqb in Hb. rewrite forallb_forall in Hb. specialize (Hb a' Hin). apply eqb_prop in Hb.
  rewrite (zbfun_of_local s r a a' H) by (rewrite N; exact Hag). rewrite Hb. symmetry. apply Hloc. exact Hag.
Qed.

(** ** Configuration A: unbounded cache, operands always swapped *)

Definition zgtA : ref -> ref -> bool := fun _ _ => true.
Notation zstepA := (hstep_z zgtA zacache zac_get zac_add []).
Notation zrunA := (hrun_z zgtA zacache zac_get zac_add []).
Lemma zemptyA : forall k a m, zac_get [] k a m = None.
Proof. reflexivity. Qed.

(** ** Configuration B: no cache, operands never swapped *)

Definition zgtB : ref -> ref -> bool := fun _ _ => false.
Notation zstepB := (hstep_z zgtB unit znc_get znc_add tt).
Notation zrunB := (hrun_z zgtB unit znc_get znc_add tt).
Lemma zemptyB : forall k a m, znc_get tt k a m = None.
Proof. reflexivity. Qed.

(** ** The long history *)

Definition exz_ops : list zhop :=
  [ ZHVar 0 0 false;                      (* x0 *)
    ZHVar 1 1 false;                      (* x1 *)
    ZHVar 2 2 true;                       (* ~x2 *)
    ZHConst 3 true;
    ZHBin OAnd 4 0 1;                     (* x0 /\ x1 *)
    ZHBin OXor 5 4 2;                     (* (x0 /\ x1) xor ~x2 *)
    ZHIte 6 0 1 2;                        (* if x0 then x1 else ~x2 *)
    ZHNot 7 6;
    ZHBin OAnd 8 0 2;                     (* the cube x0 /\ ~x2 *)
    ZHRestrict 9 5 8;
    ZHSingleton 10 1%nat;                 (* { {x1} } *)
    ZHSingleton 11 2%nat;                 (* { {x2} } *)
    ZHBase 12;                            (* { {} } *)
    ZHEmpty 13;
    ZHMakeNode 14 10 11 12;               (* { {}, {x1, x2} } *)
    ZHSet ZUnion 15 14 10;
    ZHSub ZChange 16 15 0%nat;
    ZHSub ZSubset1 17 16 1%nat;
    ZHSub ZSubset0 18 16 2%nat;
    ZHSet ZDiff 19 5 15;
    ZHSet ZIntsec 20 5 6;
    ZHClone 21 5;
    ZHDrop 7;
    ZHGc;
    ZHSetVarOrder [2%nat; 0%nat; 1%nat];
    ZHRestrict 22 5 8;                    (* the same call after the reordering *)
    ZHAddVars 1;
    ZHRestrict 23 5 8;                    (* the same operand edges, one more variable *)
    ZHVar 24 3 false;                     (* the new variable *)
    ZHBin OOr 25 5 24;
    ZHGc ].

Definition exz_stA : hstate_z zacache :=
  match zrunA (hinit_z zacache [] 3) exz_ops with Some st => st | None => hinit_z zacache [] 0 end.

Lemma exz_preA : zhops_pre_b zgtA zacache zac_get zac_add [] (hinit_z zacache [] 3) exz_ops = true.
Proof. vm_compute. reflexivity. Qed.

(** the final state as a value: the facts below are read off it, so that checking
    them does not run the history again each time *)
Definition exz_valA : hstate_z zacache := Eval vm_compute in exz_stA.
Lemma exz_runA_val : zrunA (hinit_z zacache [] 3) exz_ops = Some exz_valA.
Proof. vm_compute. reflexivity. Qed.
Lemma exz_stA_val : exz_stA = exz_valA.
Proof. unfold exz_stA. rewrite exz_runA_val. reflexivity. Qed.

Lemma exz_runA : zrunA (hinit_z zacache [] 3) exz_ops = Some exz_stA.
Proof. rewrite exz_stA_val. exact exz_runA_val. Qed.

(** every constructor occurs *)
Definition zhop_tag (o : zhop) : nat :=
  match o with
  | ZHConst _ _ => 0 | ZHVar _ _ _ => 1 | ZHNot _ _ => 2 | ZHBin _ _ _ _ => 3 | ZHIte _ _ _ _ => 4
  | ZHRestrict _ _ _ => 5 | ZHEmpty _ => 6 | ZHBase _ => 7 | ZHSingleton _ _ => 8 | ZHSub _ _ _ _ => 9
  | ZHSet _ _ _ _ => 10 | ZHMakeNode _ _ _ _ => 11 | ZHClone _ _ => 12 | ZHDrop _ => 13 | ZHGc => 14
  | ZHAddVars _ => 15 | ZHSetVarOrder _ => 16
  end%nat.

Lemma exz_ops_cover : forallb (fun t => existsb (fun o => Nat.eqb (zhop_tag o) t) exz_ops) (seq 0 17) = true
                      /\ length exz_ops = 31%nat.
Proof. vm_compute. auto. Qed.

(** the run is not trivial: nodes were created, removed and reordered, the
    chain was dropped, rebuilt and extended *)
Lemma exz_stA_shape :
  PositiveMap.cardinal (s_nodes (hz_s zacache exz_stA)) = 39%nat /\
  s_l2v (hz_s zacache exz_stA) = [2; 0; 1; 3]%nat /\
  s_v2l (hz_s zacache exz_stA) = [1; 2; 0; 3]%nat /\
  length (s_handles (hz_s zacache exz_stA)) = 25%nat /\
  wf_b (hz_s zacache exz_stA) = true /\ zbdd_ok_b (hz_s zacache exz_stA) = true /\
  zchain_ok_b (hz_s zacache exz_stA) = true.
Proof. rewrite exz_stA_val. vm_compute. repeat split; reflexivity. Qed.

Theorem exz_reachA : hreach_z zgtA zacache zac_get zac_add [] 3 exz_stA.
Proof.
  exists exz_ops. split; [|exact exz_runA].
  apply (zhops_pre_b_sound zgtA zacache zac_get zac_add zac_lossy [] zemptyA).
  - apply (hinit_z_inv zacache zac_get [] zemptyA).
  - exact exz_preA.
Qed.

Theorem exz_invA : HInvZ zacache zac_get exz_stA.
Proof. apply (hreach_z_inv zgtA zacache zac_get zac_add zac_lossy [] zemptyA 3). exact exz_reachA. Qed.

(** the theorems, instantiated *)
Theorem exz_wfA : wf_b (hz_s zacache exz_stA) = true /\ zbdd_ok_b (hz_s zacache exz_stA) = true /\
                  zchain_ok_b (hz_s zacache exz_stA) = true.
Proof. apply (histz_wf zgtA zacache zac_get zac_add zac_lossy [] zemptyA 3). exact exz_reachA. Qed.

(** slots 5 and 21 (a clone) hold the same edge, and so do slots 9 and 22: the
    restriction computed before and after collection + reordering (canonicity:
    it is the same function); slots 5 and 6 hold different edges, hence
    different functions *)
Theorem exz_canonA :
  hget (s_handles (hz_s zacache exz_stA)) 5 = hget (s_handles (hz_s zacache exz_stA)) 21 /\
  hget (s_handles (hz_s zacache exz_stA)) 9 = hget (s_handles (hz_s zacache exz_stA)) 22 /\
  forall e5 e6, hget (s_handles (hz_s zacache exz_stA)) 5 = Some e5 ->
                hget (s_handles (hz_s zacache exz_stA)) 6 = Some e6 ->
    ~ (forall a, zbfun_of (hz_s zacache exz_stA) (eref e5) a = zbfun_of (hz_s zacache exz_stA) (eref e6) a).
Proof.
  split; [rewrite exz_stA_val; reflexivity|]. split; [rewrite exz_stA_val; reflexivity|]. intros e5 e6 E5 E6 Heq.
  assert (X : e5 = e6).
  { apply (proj2 (histz_canonical zgtA zacache zac_get zac_add zac_lossy [] zemptyA 3
                    exz_stA exz_reachA 5 6 e5 e6 E5 E6)). exact Heq. }
  assert (Y : hget (s_handles (hz_s zacache exz_stA)) 5 <> hget (s_handles (hz_s zacache exz_stA)) 6)
    by (rewrite exz_stA_val; vm_compute; discriminate).
  apply Y. rewrite E5, E6, X. reflexivity.
Qed.

(** ** [restrict] across [add_vars]: why the key of a Restrict entry carries the number of levels *)

Definition zslot_ref (C : Type) (st : hstate_z C) (k : N) : ref :=
  match zslot C st k with Some r => r | None => RT 0 end.

(** the third [restrict] (slot 23) is NOT the edge of the first two (slots 9, 22),
    and it is the cofactor: the function of slot 5 with x0 := true, x2 := false
    (and x3, which the cube handle now also fixes, := false) *)
Lemma exz_restrict_fresh :
  hget (s_handles (hz_s zacache exz_stA)) 23 <> hget (s_handles (hz_s zacache exz_stA)) 9 /\
  bfun_eqb 4 (zbfun_of (hz_s zacache exz_stA) (zslot_ref zacache exz_stA 23))
             (restrict_s [(0%nat, true); (2%nat, false); (3%nat, false)]
                (zbfun_of (hz_s zacache exz_stA) (zslot_ref zacache exz_stA 5))) = true.
Proof. rewrite exz_stA_val. split; [vm_compute; discriminate | vm_compute; reflexivity]. Qed.

(** the witness of notes/HISTz.md: two variables, [f = x0], the cube handle [x1] *)
Definition exz_keyed_ops : list zhop :=
  [ ZHVar 0 0 false; ZHVar 1 1 false;
    ZHRestrict 2 0 1;                     (* x0 restricted by x1 = true: x0 *)
    ZHAddVars 1;                          (* slot 0 is x0 /\ ~x2 now, slot 1 is x1 /\ ~x2 *)
    ZHRestrict 3 0 1 ].                   (* the cofactor is x0 *)
Definition exz_keyed : hstate_z zacache :=
  match zrunA (hinit_z zacache [] 2) exz_keyed_ops with
  | Some st => st | None => hinit_z zacache [] 0 end.

(** the state machine (Restrict entries keyed by the number of levels, cache kept by
    [add_vars]): the second [restrict] is computed afresh, is the cofactor, and the
    kept cache holds one entry per number of levels for the same operand edges *)
Lemma exz_restrict_keyed :
  hget (s_handles (hz_s zacache exz_keyed)) 3 <> hget (s_handles (hz_s zacache exz_keyed)) 2 /\
  bfun_eqb 3 (zbfun_of (hz_s zacache exz_keyed) (zslot_ref zacache exz_keyed 3))
             (restrict_s [(1%nat, true); (2%nat, false)]
                (zbfun_of (hz_s zacache exz_keyed) (zslot_ref zacache exz_keyed 0))) = true /\
  zac_get (hz_c zacache exz_keyed) zcode_restrict
          [zslot_ref zacache exz_keyed 0; zslot_ref zacache exz_keyed 1] [2%nat] = Some (zslot_ref zacache exz_keyed 2) /\
  zac_get (hz_c zacache exz_keyed) zcode_restrict
          [zslot_ref zacache exz_keyed 0; zslot_ref zacache exz_keyed 1] [3%nat] = Some (zslot_ref zacache exz_keyed 3).
Proof.
  vm_compute. split; [discriminate|]. repeat split.
Qed.

(** the same three calls with the DEFECTIVE variant [zrestrict_unkeyed] (Mgr/HistoryZ.v:
    [restrict] of the code before f8637cd, Restrict entries keyed by the operand edges
    only) on the kept cache: (first result, second result, operand, final table) *)
Definition exz_unkeyed : option (ref * ref * ref * snap) :=
  match zrunA (hinit_z zacache [] 2) [ZHVar 0 0 false; ZHVar 1 1 false] with
  | Some st =>
    let s := hz_s zacache st in
    match zslot zacache st 0, zslot zacache st 1 with
    | Some f, Some c =>
      match zrestrict_unkeyed zacache zac_get zac_add (S (nlevels s)) s [] f c 0 with
      | Some (s1, c1, r1) =>
        match zadd_vars s1 1 with
        | Some (s2, _) =>
          match zrestrict_unkeyed zacache zac_get zac_add (S (nlevels s2)) s2 c1 f c 0 with
          | Some (s3, _, r3) => Some (r1, r3, f, s3)
          | None => None
          end
        | None => None
        end
      | None => None
      end
    | _, _ => None
    end
  | None => None
  end.

(** ... the second call is served the first one's entry, and that edge is not the cofactor *)
Lemma exz_restrict_unkeyed :
  match exz_unkeyed with
  | Some (r1, r3, f, s3) =>
    r3 = r1 /\
    bfun_eqb 3 (zbfun_of s3 r3) (restrict_s [(1%nat, true); (2%nat, false)] (zbfun_of s3 f)) = false
  | None => False
  end.
Proof. vm_compute. split; reflexivity. Qed.

(** ** The fresh manager *)

Definition exz_fresh : list zhop :=
  [ ZHSetVarOrder [2%nat; 0%nat; 1%nat];
    ZHVar 0 0 false; ZHVar 1 1 false; ZHVar 2 2 true; ZHVar 3 3 true;
    ZHBin OAnd 4 0 1;
    ZHBin OXor 5 4 2;                     (* (x0 /\ x1) xor ~x2 *)
    ZHBin OAnd 6 5 3;                     (* ... and ~x3: what slot 5 of the long-lived manager denotes now *)
    ZHIte 7 0 1 2;
    ZHBin OAnd 8 7 3 ].

Definition exz_stB : hstate_z unit :=
  match zrunB (hinit_z unit tt 4) exz_fresh with Some st => st | None => hinit_z unit tt 0 end.

Lemma exz_preB : zhops_pre_b zgtB unit znc_get znc_add tt (hinit_z unit tt 4) exz_fresh = true.
Proof. vm_compute. reflexivity. Qed.

Definition exz_valB : hstate_z unit := Eval vm_compute in exz_stB.
Lemma exz_runB_val : zrunB (hinit_z unit tt 4) exz_fresh = Some exz_valB.
Proof. vm_compute. reflexivity. Qed.
Lemma exz_stB_val : exz_stB = exz_valB.
Proof. unfold exz_stB. rewrite exz_runB_val. reflexivity. Qed.

Lemma exz_runB : zrunB (hinit_z unit tt 4) exz_fresh = Some exz_stB.
Proof. rewrite exz_stB_val. exact exz_runB_val. Qed.

Theorem exz_reachB : hreach_z zgtB unit znc_get znc_add tt 4 exz_stB.
Proof.
  exists exz_fresh. split; [|exact exz_runB].
  apply (zhops_pre_b_sound zgtB unit znc_get znc_add znc_lossy tt zemptyB).
  - apply (hinit_z_inv unit znc_get tt zemptyB).
  - exact exz_preB.
Qed.

Lemma exz_same_order :
  s_l2v (hz_s zacache exz_stA) = s_l2v (hz_s unit exz_stB) /\ s_v2l (hz_s zacache exz_stA) = s_v2l (hz_s unit exz_stB).
Proof. rewrite exz_stA_val, exz_stB_val. split; reflexivity. Qed.

(** the operands in the two managers *)
Definition zfA5 : bfun := zbfun_of (hz_s zacache exz_stA) (zslot_ref zacache exz_stA 5).
Definition zfA6 : bfun := zbfun_of (hz_s zacache exz_stA) (zslot_ref zacache exz_stA 6).

Lemma exz_holdsA5 : zholds zacache exz_stA 5 zfA5.
Proof. exists (zslot_ref zacache exz_stA 5). split; [rewrite exz_stA_val; reflexivity | intros a; unfold zfA5; reflexivity]. Qed.
Lemma exz_holdsA6 : zholds zacache exz_stA 6 zfA6.
Proof. exists (zslot_ref zacache exz_stA 6). split; [rewrite exz_stA_val; reflexivity | intros a; unfold zfA6; reflexivity]. Qed.

Lemma exz_WFB : WF (hz_s unit exz_stB).
Proof. apply wf_b_spec. rewrite exz_stB_val. vm_compute. reflexivity. Qed.
Lemma exz_WFA : WF (hz_s zacache exz_stA).
Proof. apply wf_b_spec. rewrite exz_stA_val. vm_compute. reflexivity. Qed.
Lemma exz_nA : nlevels (hz_s zacache exz_stA) = 4%nat.
Proof. rewrite exz_stA_val. reflexivity. Qed.
Lemma exz_nB : nlevels (hz_s unit exz_stB) = 4%nat.
Proof. rewrite exz_stB_val. reflexivity. Qed.

Lemma exz_enum6 : bfun_eqb 4 (zbfun_of (hz_s unit exz_stB) (zslot_ref unit exz_stB 6))
                             (zbfun_of (hz_s zacache exz_stA) (zslot_ref zacache exz_stA 5)) = true.
Proof. rewrite exz_stA_val, exz_stB_val. vm_compute. reflexivity. Qed.
Lemma exz_enum8 : bfun_eqb 4 (zbfun_of (hz_s unit exz_stB) (zslot_ref unit exz_stB 8))
                             (zbfun_of (hz_s zacache exz_stA) (zslot_ref zacache exz_stA 6)) = true.
Proof. rewrite exz_stA_val, exz_stB_val. vm_compute. reflexivity. Qed.

Lemma exz_slotB6 : zslot unit exz_stB 6 = Some (zslot_ref unit exz_stB 6).
Proof. rewrite exz_stB_val. reflexivity. Qed.
Lemma exz_slotB8 : zslot unit exz_stB 8 = Some (zslot_ref unit exz_stB 8).
Proof. rewrite exz_stB_val. reflexivity. Qed.

(** slot 6 / slot 8 of the fresh manager hold the same functions as slot 5 /
    slot 6 of the long-lived one (decided over all 16 assignments) *)
Lemma exz_holdsB6 : zholds unit exz_stB 6 zfA5.
Proof.
  exists (zslot_ref unit exz_stB 6). split; [exact exz_slotB6|].
  exact (zbfun_eq_enum (hz_s unit exz_stB) (hz_s zacache exz_stA) (zslot_ref unit exz_stB 6) (zslot_ref zacache exz_stA 5)
                       4%nat exz_WFB exz_WFA exz_nB exz_nA exz_enum6).
Qed.
Lemma exz_holdsB8 : zholds unit exz_stB 8 zfA6.
Proof.
  exists (zslot_ref unit exz_stB 8). split; [exact exz_slotB8|].
  exact (zbfun_eq_enum (hz_s unit exz_stB) (hz_s zacache exz_stA) (zslot_ref unit exz_stB 8) (zslot_ref zacache exz_stA 6)
                       4%nat exz_WFB exz_WFA exz_nB exz_nA exz_enum8).
Qed.

(** C08 / C01 / C09: the union computed in the long-lived manager
    (after 31 calls, two collections, a reordering, an added variable; cache,
    swapped operands) and in the fresh one (no cache) denote the same function
    and have the same number of nodes *)
Theorem exz_fresh_equiv :
  exists stA' stB' r1 r2,
    zstepA exz_stA (ZHSet ZUnion 30 5 6) = Some stA' /\ zstepB exz_stB (ZHSet ZUnion 9 6 8) = Some stB' /\
    zslot zacache stA' 30 = Some r1 /\ zslot unit stB' 9 = Some r2 /\
    (forall a, zbfun_of (hz_s zacache stA') r1 a = zop_s ZUnion zfA5 zfA6 a) /\
    (forall a, zbfun_of (hz_s unit stB') r2 a = zop_s ZUnion zfA5 zfA6 a) /\
    count_reach (hz_s zacache stA') (E r1) = count_reach (hz_s unit stB') (E r2) /\
    wf_b (hz_s zacache stA') = true /\ wf_b (hz_s unit stB') = true.
Proof.
  apply (histz_fresh_equiv zgtA zgtB zacache unit zac_get zac_add znc_get znc_add zac_lossy znc_lossy
           [] tt zemptyA zemptyB 3 4 exz_ops exz_fresh exz_stA exz_stB).
  - apply (zhops_pre_b_sound zgtA zacache zac_get zac_add zac_lossy [] zemptyA);
      [apply (hinit_z_inv zacache zac_get [] zemptyA) | exact exz_preA].
  - exact exz_runA.
  - apply (zhops_pre_b_sound zgtB unit znc_get znc_add znc_lossy tt zemptyB);
      [apply (hinit_z_inv unit znc_get tt zemptyB) | exact exz_preB].
  - exact exz_runB.
  - apply exz_same_order.
  - apply exz_same_order.
  - apply ZSpSet; [exact exz_holdsA5 | exact exz_holdsA6].
  - apply ZSpSet; [exact exz_holdsB6 | exact exz_holdsB8].
Qed.

(** the values: the same count, different node ids *)
Lemma exz_fresh_values :
  option_map (fun st => (count_reach (hz_s zacache st) (E (zslot_ref zacache st 30)), zslot_ref zacache st 30))
             (zstepA exz_stA (ZHSet ZUnion 30 5 6)) = Some (7, RN 48) /\
  option_map (fun st => (count_reach (hz_s unit st) (E (zslot_ref unit st 9)), zslot_ref unit st 9))
             (zstepB exz_stB (ZHSet ZUnion 9 6 8)) = Some (7, RN 31).
Proof. rewrite exz_stA_val, exz_stB_val. split; vm_compute; reflexivity. Qed.

(** ** The hypotheses of [hspec_z] for restriction, change and make_node are satisfiable *)

Lemma zcube_fun_local : forall lits n, (forall p, In p lits -> (fst p < n)%nat) ->
  forall a a', (forall v, (v < n)%nat -> a v = a' v) -> zcube_fun lits a = zcube_fun lits a'.
Proof.
  intros lits n Hlt a a' Hag. unfold zcube_fun. induction lits as [|p r IH]; [reflexivity|]. simpl.
  rewrite (Hag (fst p) (Hlt p (or_introl eq_refl))), IH; [reflexivity|]. intros w Hw. apply Hlt. right. exact Hw.
Qed.

(** slot 8 holds (now, with four variables) the cube x0 /\ ~x2 /\ ~x3 *)
Lemma exz_enum_cube : bfun_eqb 4 (zbfun_of (hz_s zacache exz_stA) (zslot_ref zacache exz_stA 8))
                                 (zcube_fun [(0%nat, true); (2%nat, false); (3%nat, false)]) = true.
Proof. rewrite exz_stA_val. vm_compute. reflexivity. Qed.

Lemma exz_holds_cube : zholds zacache exz_stA 8 (zcube_fun [(0%nat, true); (2%nat, false); (3%nat, false)]).
Proof.
  exists (zslot_ref zacache exz_stA 8). split; [rewrite exz_stA_val; reflexivity|].
  apply (zbfun_eq_enum_spec _ _ 4%nat _ exz_WFA exz_nA); [|exact exz_enum_cube].
  apply zcube_fun_local. intros p [<-|[<-|[<-|[]]]]; simpl; lia.
Qed.

Theorem exz_spec_restrict :
  exists st', zstepA exz_stA (ZHRestrict 31 5 8) = Some st' /\
              zholds zacache st' 31 (restrict_s [(0%nat, true); (2%nat, false); (3%nat, false)] zfA5).
Proof.
  destruct (hstep_z_spec zgtA zacache zac_get zac_add zac_lossy [] zemptyA exz_stA _ 31 _ exz_invA
              (ZSpRestrict zacache exz_stA 31 5 8 zfA5 _ exz_holdsA5 exz_holds_cube
                 ltac:(repeat constructor; simpl; intuition lia)
                 ltac:(intros v b [Hx|[Hx|[Hx|[]]]]; inversion Hx; subst; rewrite exz_nA; lia)))
    as [st' [E [_ [_ Hd]]]].
  exists st'. split; [exact E | exact Hd].
Qed.

Theorem exz_spec_change :
  exists st', zstepA exz_stA (ZHSub ZChange 31 5 3%nat) = Some st' /\
              zholds zacache st' 31 (zsub_s ZChange 3%nat zfA5).
Proof.
  destruct (hstep_z_spec zgtA zacache zac_get zac_add zac_lossy [] zemptyA exz_stA _ 31 _ exz_invA
              (ZSpSub zacache exz_stA ZChange 31 5 3%nat zfA5 exz_holdsA5 ltac:(rewrite exz_nA; lia)))
    as [st' [E [_ [_ Hd]]]].
  exists st'. split; [exact E | exact Hd].
Qed.
