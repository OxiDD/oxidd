(** * The set-family operations of a ZBDD manager as functions of the VARIABLES

    The C09 theorems describe the results of union / intsec / diff, subset0 /
    subset1 / change, singleton, base, empty and make_node as families of sets
    of LEVELS ([fam_of], DD/FamSpec.v).  For statements that compare two
    managers (different histories, hence possibly different node tables, but
    the same variable order) the result has to be given by the operands'
    FUNCTIONS of the variables ([zbfun_of]: membership of the set of true
    variables).  This file translates: [zop_s], [zsub_s], [singleton_s],
    [base_s], [mknode_s] are the spec functions, [fam_*_bfun] the bridges. *)

From Coq Require Import List NArith PArith Bool Arith Lia FMapPositive.
From OxiVerif Require Import DD.Table DD.TableExtra DD.TableProofs DD.Sem DD.Build DD.BuildProofs
  DD.Apply DD.ApplyProofs DD.ApplyEvalProofs DD.ConfigApply DD.CanonZbdd DD.FamSpec DD.FamSpecProofs
  DD.ZbddOps DD.ZbddOpsProofs DD.ZbddSubsetProofs DD.ZbddSoundProofs DD.ZbddBool DD.ZbddBoolProofs DD.ZbddEvalProofs
  Mgr.LevelSwap Mgr.LevelSwapProofs Mgr.LevelSwapOrder Mgr.LevelSwapZ Mgr.LevelSwapZProofs
  Mgr.LevelSwapZChain Mgr.LevelSwapZOrder Mgr.LevelSwapZFam
  Mgr.HistoryZ Mgr.HistoryZBase.
Import ListNotations.

Local Arguments zbfun_of : simpl never.
Local Arguments fam_of : simpl never.

(** ** The spec functions *)

Definition zop_s (o : zop) (f g : bfun) : bfun :=
  fun a => match o with
           | ZUnion => f a || g a
           | ZIntsec => f a && g a
           | ZDiff => f a && negb (g a)
           end.

(** subset0: the members without [v]; subset1: the members with [v], [v] removed;
    change: [v] toggled in every member *)
Definition zsub_s (o : zsub) (v : nat) (f : bfun) : bfun :=
  fun a => match o with
           | ZSubset0 => f a && negb (a v)
           | ZSubset1 => f (upd a v true) && negb (a v)
           | ZChange => f (upd a v (negb (a v)))
           end.

(** { {v} } and { {} } over [n] variables *)
Definition singleton_s (n v : nat) : bfun :=
  fun a => forallb (fun u => Bool.eqb (a u) (Nat.eqb u v)) (seq 0 n).
Definition base_s (n : nat) : bfun := fun a => forallb (fun u => negb (a u)) (seq 0 n).

(** lo + { S + {v} | S in hi }  ("lo or (var and hi|var=0)") *)
Definition mknode_s (v : nat) (hi lo : bfun) : bfun :=
  fun a => lo a || (a v && hi (upd a v false)).

(** ** Sets of variables as level lists *)

Lemma incr_same_members : forall (X T : lset) lo, incr_from lo X -> incr_from lo T ->
  (forall x, In x X <-> In x T) -> X = T.
Proof.
  induction X as [|x X IH]; intros T lo HS HT Hm.
  - destruct T as [|y T]; [reflexivity|]. exfalso. apply (proj2 (Hm y)). left. reflexivity.
  - destruct T as [|y T]; [exfalso; apply (proj1 (Hm x)); left; reflexivity|].
    simpl in HS, HT. destruct HS as [Lx HS]. destruct HT as [Ly HT].
    assert (x = y).
    { destruct (proj1 (Hm x) (or_introl eq_refl)) as [->|Hx]; [reflexivity|].
      destruct (proj2 (Hm y) (or_introl eq_refl)) as [->|Hy]; [reflexivity|].
      pose proof (incr_from_ge _ _ x HT Hx). pose proof (incr_from_ge _ _ y HS Hy). lia. }
    subst y. f_equal. apply (IH T (S x) HS HT). intros z. split; intros Hz.
    + destruct (proj1 (Hm z) (or_intror Hz)) as [->|Hz']; [|exact Hz'].
      pose proof (incr_from_ge _ _ z HS Hz). lia.
    + destruct (proj2 (Hm z) (or_intror Hz)) as [->|Hz']; [|exact Hz'].
      pose proof (incr_from_ge _ _ z HT Hz). lia.
Qed.

Lemma set_levels_incr : forall s a, incr_from 0 (set_levels s a).
Proof. intros s a. unfold set_levels. apply true_levels_incr. Qed.

Section SetLevels.
Variable s : snap.
Hypothesis H : WF s.

Lemma set_levels_mem : forall a v vl, nth_error (s_v2l s) v = Some vl ->
  (In vl (set_levels s a) <-> a v = true).
Proof.
  intros a v vl Ev. rewrite set_levels_spec.
  assert (Hv : v < length (s_v2l s)) by (apply nth_error_Some; congruence).
  destruct (wf_perm_v2l s H v Hv) as [l [E1 E2]]. rewrite Ev in E1. inversion E1; subst l.
  rewrite (nth_error_nth _ _ 0 E2). pose proof (v2l_range s v vl H Ev). tauto.
Qed.

Lemma set_levels_ext : forall a b, (forall v, v < nlevels s -> a v = b v) ->
  set_levels s a = set_levels s b.
Proof.
  intros a b Hab. unfold set_levels. apply true_levels_ext. intros l Hl. unfold asg_choice.
  destruct (wf_l2v_v2l s l H ltac:(lia)) as [Hv _]. rewrite (Hab _ Hv). reflexivity.
Qed.

Lemma set_levels_inj : forall a b, set_levels s a = set_levels s b ->
  forall v, v < nlevels s -> a v = b v.
Proof.
  intros a b E v Hv. destruct (wf_v2l_l2v s v H Hv) as [Hl Hinv].
  assert (Ev : nth_error (s_v2l s) v = Some (nth v (s_v2l s) 0)).
  { apply nth_error_nth'. rewrite (wf_perm_len s H). exact Hv. }
  pose proof (set_levels_mem a v _ Ev) as Ma. pose proof (set_levels_mem b v _ Ev) as Mb.
  rewrite E in Ma. destruct (a v), (b v); try reflexivity.
  - symmetry. apply Mb, Ma. reflexivity.
  - apply Ma, Mb. reflexivity.
Qed.

(** the level of a variable, the variable of a level *)
Lemma l2v_at : forall v vl x, nth_error (s_v2l s) v = Some vl -> x < nlevels s ->
  (nth x (s_l2v s) 0 = v <-> x = vl).
Proof.
  intros v vl x Ev Hx.
  assert (Hv : v < length (s_v2l s)) by (apply nth_error_Some; congruence).
  destruct (wf_perm_v2l s H v Hv) as [l [E1 E2]]. rewrite Ev in E1. inversion E1; subst l.
  split.
  - intros Ex. destruct (wf_l2v_v2l s x H Hx) as [_ Hinv]. rewrite Ex, (nth_error_nth _ _ 0 Ev) in Hinv.
    symmetry. exact Hinv.
  - intros ->. apply (nth_error_nth _ _ 0 E2).
Qed.

Lemma set_levels_upd_true : forall a v vl, nth_error (s_v2l s) v = Some vl ->
  set_levels s (upd a v true) = sinsert vl (set_levels s a).
Proof.
  intros a v vl Ev. pose proof (v2l_range s v vl H Ev) as Hvl.
  apply (incr_same_members _ _ 0); [apply set_levels_incr | apply incr_from_sinsert; [apply set_levels_incr | lia]|].
  intros x. rewrite in_sinsert, !set_levels_spec. unfold upd. split.
  - intros [Hx Hu]. destruct (Nat.eqb_spec (nth x (s_l2v s) 0) v) as [Ex|Ne].
    + left. apply (l2v_at v vl x Ev Hx). exact Ex.
    + right. auto.
  - intros [->|[Hx Hu]].
    + split; [exact Hvl|]. rewrite (proj2 (l2v_at v vl vl Ev Hvl) eq_refl), Nat.eqb_refl. reflexivity.
    + split; [exact Hx|]. destruct (Nat.eqb (nth x (s_l2v s) 0) v); [reflexivity | exact Hu].
Qed.

Lemma set_levels_upd_false : forall a v vl, nth_error (s_v2l s) v = Some vl ->
  set_levels s (upd a v false) = sremove vl (set_levels s a).
Proof.
  intros a v vl Ev. pose proof (v2l_range s v vl H Ev) as Hvl.
  apply (incr_same_members _ _ 0); [apply set_levels_incr | apply incr_from_sremove; apply set_levels_incr|].
  intros x. rewrite in_sremove, !set_levels_spec. unfold upd. split.
  - intros [Hx Hu]. destruct (Nat.eqb_spec (nth x (s_l2v s) 0) v) as [Ex|Ne]; [discriminate|].
    split; [auto|]. intros ->. apply Ne. apply (l2v_at v vl vl Ev Hvl). reflexivity.
  - intros [[Hx Hu] Hne]. split; [exact Hx|].
    destruct (Nat.eqb_spec (nth x (s_l2v s) 0) v) as [Ex|Ne]; [|exact Hu].
    exfalso. apply Hne. apply (l2v_at v vl x Ev Hx). exact Ex.
Qed.

Lemma set_levels_single : forall v vl, nth_error (s_v2l s) v = Some vl ->
  set_levels s (fun u => Nat.eqb u v) = [vl].
Proof.
  intros v vl Ev. pose proof (v2l_range s v vl H Ev) as Hvl.
  apply (incr_same_members _ _ 0); [apply set_levels_incr | simpl; split; [lia | exact I]|].
  intros x. rewrite set_levels_spec. simpl. split.
  - intros [Hx Hu]. apply Nat.eqb_eq in Hu. left. symmetry. apply (l2v_at v vl x Ev Hx). exact Hu.
  - intros [<-|[]]. split; [exact Hvl|]. apply Nat.eqb_eq. apply (l2v_at v vl vl Ev Hvl). reflexivity.
Qed.

Lemma set_levels_upd_back : forall a b v x, v < nlevels s -> b v = x ->
  set_levels s (upd b v (negb x)) = set_levels s a ->
  a v = negb x /\ set_levels s (upd a v x) = set_levels s b.
Proof.
  intros a b v x Hv Hb E. pose proof (set_levels_inj _ _ E) as Hag. split.
  - rewrite <- (Hag v Hv). unfold upd. rewrite Nat.eqb_refl. reflexivity.
  - apply set_levels_ext. intros u Hu. unfold upd at 1. rewrite <- (Hag u Hu). unfold upd.
    destruct (Nat.eqb_spec u v) as [->|Ne]; [symmetry; exact Hb | reflexivity].
Qed.

Lemma set_levels_upd_upd : forall a v x y, a v = y -> set_levels s (upd (upd a v x) v y) = set_levels s a.
Proof.
  intros a v x y Ha. apply set_levels_ext. intros u _. unfold upd.
  destruct (Nat.eqb_spec u v) as [->|Ne]; [symmetry; exact Ha | reflexivity].
Qed.

End SetLevels.

(** ** The bridges: family statement => function statement *)

Section Bridges.
Variable s : snap.
Hypothesis B : ZbddOK s.

Let H : WF s := zo_wf s B.
Let Hk : s_kind s = KZbdd := zo_kind s B.

(** every member of a family is the level list of a set of variables *)
Lemma member_is_levels : forall r F T, fam_of s r = Some F -> In T F -> T = set_levels s (vset s T).
Proof. intros r F T EF HT. symmetry. apply (fam_member_is_set s r F T H Hk EF HT). Qed.

Lemma fmem_bool : forall S F b, (In S F <-> b = true) -> fmem S F = b.
Proof.
  intros S F b Hb. destruct b.
  - apply fmem_spec. apply Hb. reflexivity.
  - apply fmem_false. intros Hin. apply Hb in Hin. discriminate.
Qed.

Theorem fam_bin_bfun : forall o f g r F G R a, ref_ok s f -> ref_ok s g -> ref_ok s r ->
  fam_of s f = Some F -> fam_of s g = Some G -> fam_of s r = Some R -> feq R (f_bin o F G) ->
  zbfun_of s r a = zop_s o (zbfun_of s f) (zbfun_of s g) a.
Proof.
  intros o f g r F G R a Of Og Or EF EG ER Hq. unfold zop_s.
  rewrite (zbfun_fam s r R a B Or ER), (zbfun_fam s f F a B Of EF), (zbfun_fam s g G a B Og EG).
  apply fmem_bool. rewrite (Hq _). destruct o; simpl.
  - rewrite in_f_union, orb_true_iff, !fmem_spec. reflexivity.
  - rewrite in_f_intsec, andb_true_iff, !fmem_spec. reflexivity.
  - rewrite in_f_diff, andb_true_iff, negb_true_iff, fmem_spec, fmem_false. reflexivity.
Qed.

Theorem fam_sub_bfun : forall o v vl f r F R a, ref_ok s f -> ref_ok s r ->
  nth_error (s_v2l s) v = Some vl ->
  fam_of s f = Some F -> fam_of s r = Some R -> feq R (f_sub o vl F) ->
  zbfun_of s r a = zsub_s o v (zbfun_of s f) a.
Proof.
  intros o v vl f r F R a Of Or Ev EF ER Hq. unfold zsub_s.
  pose proof (v2l_range s v vl H Ev) as Hvl.
  assert (Hvn : v < nlevels s).
  { unfold nlevels. rewrite <- (wf_perm_len s H). apply nth_error_Some. congruence. }
  rewrite (zbfun_fam s r R a B Or ER). apply fmem_bool. rewrite (Hq _).
  pose proof (set_levels_mem s H a v vl Ev) as Mem.
  destruct o; simpl.
  - (* subset0 *)
    rewrite in_f_subset0, andb_true_iff, negb_true_iff, (zbfun_fam s f F a B Of EF), fmem_spec.
    rewrite Mem. destruct (a v); intuition congruence.
  - (* subset1 *)
    rewrite in_f_subset1, andb_true_iff, negb_true_iff, (zbfun_fam s f F _ B Of EF), fmem_spec. split.
    + intros [T [HT [Hin E0]]]. pose proof (member_is_levels f F T EF HT) as ET.
      set (b := vset s T) in *.
      assert (Hb : b v = true) by (apply (set_levels_mem s H b v vl Ev); rewrite <- ET; exact Hin).
      rewrite ET, <- (set_levels_upd_false s H b v vl Ev) in E0.
      destruct (set_levels_upd_back s H a b v true Hvn Hb (eq_sym E0)) as [Hav Eb].
      rewrite Eb, <- ET. auto.
    + intros [HT Hav]. exists (set_levels s (upd a v true)). split; [exact HT|]. split.
      * apply (set_levels_mem s H _ v vl Ev). unfold upd. rewrite Nat.eqb_refl. reflexivity.
      * rewrite <- (set_levels_upd_false s H _ v vl Ev). symmetry. apply (set_levels_upd_upd s H). exact Hav.
  - (* change *)
    rewrite in_f_change, (zbfun_fam s f F _ B Of EF), fmem_spec. split.
    + intros [[T [HT [Hnin E0]]]|[T [HT [Hin E0]]]]; pose proof (member_is_levels f F T EF HT) as ET;
        set (b := vset s T) in *.
      * assert (Hb : b v = false).
        { destruct (b v) eqn:Eb; [|reflexivity]. exfalso. apply Hnin. rewrite ET.
          apply (set_levels_mem s H b v vl Ev). exact Eb. }
        rewrite ET, <- (set_levels_upd_true s H b v vl Ev) in E0.
        destruct (set_levels_upd_back s H a b v false Hvn Hb (eq_sym E0)) as [Hav Eb].
        rewrite Hav. simpl negb. rewrite Eb, <- ET. exact HT.
      * assert (Hb : b v = true) by (apply (set_levels_mem s H b v vl Ev); rewrite <- ET; exact Hin).
        rewrite ET, <- (set_levels_upd_false s H b v vl Ev) in E0.
        destruct (set_levels_upd_back s H a b v true Hvn Hb (eq_sym E0)) as [Hav Eb].
        rewrite Hav. simpl negb. rewrite Eb, <- ET. exact HT.
    + intros HT. destruct (a v) eqn:Eav; simpl in HT.
      * left. exists (set_levels s (upd a v false)). split; [exact HT|]. split.
        -- intros Hin. apply (set_levels_mem s H _ v vl Ev) in Hin. unfold upd in Hin.
           rewrite Nat.eqb_refl in Hin. discriminate.
        -- rewrite <- (set_levels_upd_true s H _ v vl Ev). symmetry. apply (set_levels_upd_upd s H). exact Eav.
      * right. exists (set_levels s (upd a v true)). split; [exact HT|]. split.
        -- apply (set_levels_mem s H _ v vl Ev). unfold upd. rewrite Nat.eqb_refl. reflexivity.
        -- rewrite <- (set_levels_upd_false s H _ v vl Ev). symmetry. apply (set_levels_upd_upd s H). exact Eav.
Qed.

Lemma forallb_seq0 : forall n (p : nat -> bool), forallb p (seq 0 n) = true <-> forall u, u < n -> p u = true.
Proof.
  intros n p. rewrite forallb_forall. split.
  - intros Hf u Hu. apply Hf. apply in_seq. lia.
  - intros Hf u Hu. apply in_seq in Hu. apply Hf. lia.
Qed.

Theorem fam_empty_bfun : forall r R a, ref_ok s r -> fam_of s r = Some R -> feq R f_empty ->
  zbfun_of s r a = false.
Proof.
  intros r R a Or ER Hq. rewrite (zbfun_fam s r R a B Or ER). apply fmem_false.
  intros Hin. apply Hq in Hin. destruct Hin.
Qed.

Theorem fam_base_bfun : forall r R a, ref_ok s r -> fam_of s r = Some R -> feq R f_base ->
  zbfun_of s r a = base_s (nlevels s) a.
Proof.
  intros r R a Or ER Hq. rewrite (zbfun_fam s r R a B Or ER). apply fmem_bool.
  rewrite (Hq _), in_f_base. unfold base_s. rewrite forallb_seq0.
  assert (E0 : set_levels s (fun _ => false) = []).
  { destruct (set_levels s (fun _ => false)) as [|x T] eqn:E0; [reflexivity|]. exfalso.
    assert (Hx : In x (set_levels s (fun _ => false))) by (rewrite E0; left; reflexivity).
    apply set_levels_spec in Hx. destruct Hx. discriminate. }
  split.
  - intros E1 u Hu. rewrite <- E0 in E1. rewrite (set_levels_inj s H _ _ E1 u Hu). reflexivity.
  - intros Hf. rewrite <- E0. apply (set_levels_ext s H). intros u Hu. specialize (Hf u Hu).
    destruct (a u); [discriminate | reflexivity].
Qed.

Theorem fam_singleton_bfun : forall v vl r R a, ref_ok s r -> nth_error (s_v2l s) v = Some vl ->
  fam_of s r = Some R -> feq R (f_singleton vl) ->
  zbfun_of s r a = singleton_s (nlevels s) v a.
Proof.
  intros v vl r R a Or Ev ER Hq. rewrite (zbfun_fam s r R a B Or ER). apply fmem_bool.
  rewrite (Hq _), in_f_singleton. unfold singleton_s. rewrite forallb_seq0.
  pose proof (set_levels_single s H v vl Ev) as E0.
  split.
  - intros E1 u Hu. rewrite <- E0 in E1. rewrite (set_levels_inj s H _ _ E1 u Hu). apply eqb_reflx.
  - intros Hf. rewrite <- E0. apply (set_levels_ext s H). intros u Hu. specialize (Hf u Hu).
    apply eqb_prop in Hf. exact Hf.
Qed.

(** make_node under its precondition: no member of [hi] contains the level [L] *)
Theorem fam_make_node_bfun : forall v L h l r A Bf R a, ref_ok s h -> ref_ok s l -> ref_ok s r ->
  nth_error (s_v2l s) v = Some L -> L < rlevel s h ->
  fam_of s h = Some A -> fam_of s l = Some Bf -> fam_of s r = Some R -> feq R (f_make_node L A Bf) ->
  zbfun_of s r a = mknode_s v (zbfun_of s h) (zbfun_of s l) a.
Proof.
  intros v L h l r A Bf R a Oh Ol Or Ev Lh EA EB ER Hq. unfold mknode_s.
  assert (Hvn : v < nlevels s).
  { unfold nlevels. rewrite <- (wf_perm_len s H). apply nth_error_Some. congruence. }
  rewrite (zbfun_fam s r R a B Or ER). apply fmem_bool. rewrite (Hq _), in_f_make_node.
  rewrite orb_true_iff, andb_true_iff, (zbfun_fam s l Bf a B Ol EB), (zbfun_fam s h A _ B Oh EA), !fmem_spec.
  assert (Hno : forall T, In T A -> ~ In L T).
  { intros T HT Hin. destruct (fam_of_members s H Hk h A T EA HT) as [Hi _].
    pose proof (incr_from_ge _ _ L Hi Hin). lia. }
  split.
  - intros [Hlo|[T [HT E0]]]; [left; exact Hlo | right].
    pose proof (member_is_levels h A T EA HT) as ET. set (b := vset s T) in *.
    assert (Hb : b v = false).
    { destruct (b v) eqn:Eb; [|reflexivity]. exfalso. apply (Hno T HT). rewrite ET.
      apply (set_levels_mem s H b v L Ev). exact Eb. }
    rewrite ET, <- (set_levels_upd_true s H b v L Ev) in E0.
    destruct (set_levels_upd_back s H a b v false Hvn Hb (eq_sym E0)) as [Hav Eb].
    rewrite Eb, <- ET. auto.
  - intros [Hlo|[Hav HT]]; [left; exact Hlo | right].
    exists (set_levels s (upd a v false)). split; [exact HT|].
    rewrite <- (set_levels_upd_true s H _ v L Ev). symmetry. apply (set_levels_upd_upd s H). exact Hav.
Qed.

End Bridges.
