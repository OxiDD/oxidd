(** * The invariant of the ZBDD manager state machine and its preservation by every call

    [HInvZ st]: the table is a well-formed ZBDD table with both terminals
    ([ZbddOK], which includes: every handle slot refers to a stored node or
    terminal), the tautology chain of the manager is complete ([ZChainOK]),
    the apply cache serves only correct entries for all operator codes
    ([ZCacheOKB]; Restrict entries are keyed by the number of levels, DD/ZbddBool.v
    [zrestrict], and an entry says something only for the table's own number of
    levels), and no Restrict entry is keyed with a number of levels the
    manager has not reached yet ([znofuture]; entries of smaller numbers of
    levels may linger after [add_vars]: they are never looked up again).

    [hstep_z_ok]: for every state satisfying [HInvZ], every configuration
    (operand order [gt], any [zlossy] cache with any content that satisfies the
    cache invariant) and every well-formed request ([zhop_pre]), the call
    - runs to completion ([hstep_z] is not [None]),
    - re-establishes [HInvZ],
    - [hframe_z]: changes no slot other than its destination; every edge held
      by a slot before the call is still stored and denotes the same function
      of the variables - for [add_vars]: the old function AND "all new
      variables false" (so the FAMILY of variable sets is the same in all cases,
      [hframe_z_family]);
    - [hpost_z]: leaves in its destination the spec function (DD/Sem.v) of the
      operands' functions resp. the documented family (DD/FamSpec.v) of the
      operands' families at the time of the call. *)

From Coq Require Import List NArith PArith Bool Arith Lia FMapPositive.
From OxiVerif Require Import DD.Table DD.TableExtra DD.TableProofs DD.Sem DD.Build DD.BuildProofs
  DD.Apply DD.ApplyProofs DD.ApplyEvalProofs DD.ConfigApply DD.CanonZbdd DD.FamSpec DD.FamSpecProofs
  DD.ZbddOps DD.ZbddOpsProofs DD.ZbddSubsetProofs DD.ZbddSoundProofs DD.ZbddVars DD.ZbddVarsProofs
  DD.ZbddBool DD.ZbddBoolProofs DD.ZbddXorProofs DD.ZbddIteProofs DD.ZbddEvalProofs
  DD.ZbddRestrictProofs DD.ZbddRestrictTop DD.ZbddCubeCanon
  DD.ConfigInsert DD.ConfigRun DD.ConfigZbddRun DD.ConfigZbddIndep
  Mgr.SortOrder Mgr.SortOrderProofs Mgr.LevelSwap Mgr.LevelSwapOrder Mgr.HistoryGc Mgr.HistoryReorder Mgr.LevelSwapZ
  Mgr.History Mgr.HistoryBase Mgr.HistoryZ Mgr.HistoryZBase Mgr.HistoryZCache.
Import ListNotations.

Local Arguments hset : simpl never.
Local Arguments hget : simpl never.
Local Arguments hdel : simpl never.
Local Arguments zbfun_of : simpl never.
Local Arguments fam_of : simpl never.
Local Arguments zapply_ite : simpl never.
Local Arguments zapply : simpl never.
Local Arguments zapply_op : simpl never.
Local Arguments zapply_not : simpl never.
Local Arguments znot_var : simpl never.
Local Arguments zsubset : simpl never.
Local Arguments zsubset_top : simpl never.
Local Arguments zrestrict : simpl never.
Local Arguments zrestrict_edge : simpl never.
Local Arguments zvar : simpl never.
Local Arguments zconst : simpl never.
Local Arguments zsingleton : simpl never.
Local Arguments zmake_node : simpl never.
Local Arguments zadd_vars : simpl never.
Local Arguments set_var_order_model_z : simpl never.
Local Arguments gc_model : simpl never.

Lemma fam_of_set_handles : forall s hs r, fam_of (set_handles s hs) r = fam_of s r.
Proof.
  intros s hs r. unfold fam_of. change (nlevels (set_handles s hs)) with (nlevels s).
  apply famz_set_handles.
Qed.

Definition zorder_same (s s' : snap) : Prop := s_l2v s' = s_l2v s /\ s_v2l s' = s_v2l s.

Definition zchanges_order (o : zhop) : bool :=
  match o with ZHAddVars _ | ZHSetVarOrder _ => true | _ => false end.

(** every call but a reordering leaves the level sets of the families as they are *)
Definition zkeeps_levels (o : zhop) : bool :=
  match o with ZHSetVarOrder _ => false | _ => true end.

Section HistZ.
Variable gt : ref -> ref -> bool.
Variable C : Type.
Variable cget : C -> N -> list ref -> list nat -> option ref.
Variable cadd : C -> N -> list ref -> list nat -> ref -> C.
Hypothesis Hlossy : zlossy C cget cadd.
Variable cempty : C.
Hypothesis Hempty : forall k a m, cget cempty k a m = None.

Notation hstate_z := (hstate_z C).
Notation hstep_z := (hstep_z gt C cget cadd cempty).
Notation hrun_z := (hrun_z gt C cget cadd cempty).
Notation mkHZ := (mkHZ C).
Notation ZOKB := (ZCacheOKB C cget).
Notation NOFUT n := (znofuture C cget n).

Record HInvZ (st : hstate_z) : Prop := mkHInvZ {
  hzi_ok : ZbddOK (hz_s C st);
  hzi_chain : ZChainOK (hz_s C st);
  hzi_cache : ZOKB (hz_s C st) (hz_c C st);
  hzi_future : NOFUT (nlevels (hz_s C st)) (hz_c C st)
}.

(** everything a client still holds: the edges in the slots *)
Definition zroot (st : hstate_z) (r : ref) : Prop :=
  exists h, In h (s_handles (hz_s C st)) /\ eref (snd h) = r.

Lemma zroot_ok : forall st r, HInvZ st -> zroot st r -> ref_ok (hz_s C st) r.
Proof. intros st r I [h [Hin <-]]. apply (z_handle_ok _ h (hzi_ok st I) Hin). Qed.

Lemma zslot_root : forall st k r, zslot C st k = Some r -> zroot st r.
Proof.
  intros st k r E. unfold zslot in E.
  destruct (hget (s_handles (hz_s C st)) k) as [e|] eqn:Eg; [|discriminate]. inversion E; subst.
  exists (k, e). split; [apply hget_In; exact Eg | reflexivity].
Qed.

Lemma zslot_ok : forall st k r, HInvZ st -> zslot C st k = Some r -> ref_ok (hz_s C st) r.
Proof. intros st k r I E. apply (zroot_ok st r I). apply (zslot_root st k r E). Qed.

Lemma zokb_empty : forall s, ZOKB s cempty.
Proof. intros s code args nums r E. rewrite Hempty in E. discriminate. Qed.

Lemma nofut_empty : forall n, NOFUT n cempty.
Proof. intros n a m n' r E. rewrite Hempty in E. discriminate. Qed.

(** ** Well-formed requests *)

Definition zoccupied (st : hstate_z) (k : N) : Prop := exists r, zslot C st k = Some r.

Definition zhop_pre (st : hstate_z) (o : zhop) : Prop :=
  let s := hz_s C st in
  match o with
  | ZHConst _ _ | ZHEmpty _ | ZHBase _ | ZHDrop _ | ZHGc | ZHAddVars _ => True
  | ZHVar _ v _ | ZHSingleton _ v => v < nlevels s
  | ZHNot _ a | ZHClone _ a => zoccupied st a
  | ZHBin _ _ a b | ZHSet _ _ a b => zoccupied st a /\ zoccupied st b
  | ZHIte _ a b c => zoccupied st a /\ zoccupied st b /\ zoccupied st c
  | ZHRestrict _ a cube =>
    (* "vars must be a conjunction of literals" *)
    zoccupied st a /\ exists V M, zslot C st cube = Some V /\ ZCube s M 0 V
  | ZHSub _ _ a v => zoccupied st a /\ v < nlevels s
  | ZHMakeNode _ var hi lo =>
    (* "var must be a singleton set, and var's level must be above hi's and lo's levels" *)
    exists v h l Fv L, zslot C st var = Some v /\ zslot C st hi = Some h /\ zslot C st lo = Some l /\
      fam_of s v = Some Fv /\ feq Fv (f_singleton L) /\ L < rlevel s h /\ L < rlevel s l
  | ZHSetVarOrder order => NoDup order /\ Forall (fun v => v < nlevels s) order
  end.

(** ** The frame *)

Definition hframe_z (st : hstate_z) (o : zhop) (st' : hstate_z) : Prop :=
  let s := hz_s C st in
  let s' := hz_s C st' in
  (forall x, zhdst o <> Some x -> hget (s_handles s') x = hget (s_handles s) x) /\
  (forall r, zroot st r ->
     ref_ok s' r /\
     forall a, zbfun_of s' r a = zbfun_of s r a && newfalse (nlevels s) (nlevels s') a) /\
  nlevels s <= nlevels s' /\
  (zchanges_order o = false -> zorder_same s s') /\
  (zkeeps_levels o = true -> forall r, zroot st r -> fam_of s' r = fam_of s r).

(** the family of sets of variables of every kept edge is unchanged - by every
    call, [add_vars] included *)
Theorem hframe_z_family : forall st o st', hframe_z st o st' ->
  forall r, zroot st r -> forall a, vmem (hz_s C st') r a <-> vmem (hz_s C st) r a.
Proof.
  intros st o st' [_ [F2 [Hn _]]] r Hr. apply (vmem_stable _ _ r Hn). apply (proj2 (F2 r Hr)).
Qed.

(** ** What the destination holds afterwards *)

Definition zholds (st : hstate_z) (d : N) (F : bfun) : Prop :=
  exists r, zslot C st d = Some r /\ forall a, zbfun_of (hz_s C st) r a = F a.

(** ... as a family of sets of LEVELS of the current order *)
Definition zholds_fam (st : hstate_z) (d : N) (Fm : fam) : Prop :=
  exists r R, zslot C st d = Some r /\ fam_of (hz_s C st) r = Some R /\ feq R Fm.

Definition hpost_z (st : hstate_z) (o : zhop) (st' : hstate_z) : Prop :=
  let s := hz_s C st in
  let s' := hz_s C st' in
  match o with
  | ZHConst d b => zholds st' d (const_s b)
  | ZHVar d v neg => zholds st' d (fun a => xorb neg (var_s v a))
  | ZHNot d x =>
    exists f, zslot C st x = Some f /\ zholds st' d (lift1 negb (zbfun_of s f))
  | ZHBin op d x y =>
    exists f g, zslot C st x = Some f /\ zslot C st y = Some g /\
      zholds st' d (lift2 op (zbfun_of s f) (zbfun_of s g))
  | ZHIte d x y z =>
    exists f g h, zslot C st x = Some f /\ zslot C st y = Some g /\ zslot C st z = Some h /\
      zholds st' d (ite_s (zbfun_of s f) (zbfun_of s g) (zbfun_of s h))
  | ZHRestrict d x cube =>
    exists f V, zslot C st x = Some f /\ zslot C st cube = Some V /\
      forall lits, NoDup (map fst lits) -> (forall v b, In (v, b) lits -> v < nlevels s) ->
        is_zcube s V lits -> zholds st' d (restrict_s lits (zbfun_of s f))
  | ZHEmpty d => zholds_fam st' d f_empty
  | ZHBase d => zholds_fam st' d f_base
  | ZHSingleton d v =>
    exists vl, nth_error (s_v2l s) v = Some vl /\ zholds_fam st' d (f_singleton vl)
  | ZHSub op d x v =>
    exists f F vl, zslot C st x = Some f /\ fam_of s f = Some F /\ nth_error (s_v2l s) v = Some vl /\
      zholds_fam st' d (f_sub op vl F)
  | ZHSet op d x y =>
    exists f g F G, zslot C st x = Some f /\ zslot C st y = Some g /\
      fam_of s f = Some F /\ fam_of s g = Some G /\ zholds_fam st' d (f_bin op F G)
  | ZHMakeNode d var hi lo =>
    exists v h l Fv L A Bf, zslot C st var = Some v /\ zslot C st hi = Some h /\ zslot C st lo = Some l /\
      fam_of s v = Some Fv /\ feq Fv (f_singleton L) /\ fam_of s h = Some A /\ fam_of s l = Some Bf /\
      zholds_fam st' d (f_make_node L A Bf)
  | ZHClone d x => hget (s_handles s') d = hget (s_handles s) x /\ zoccupied st' d
  | ZHDrop x => hget (s_handles s') x = None /\ s_nodes s' = s_nodes s
  | ZHGc =>
    (forall id nd, find_node s' id = Some nd ->
       find_node s id = Some nd /\
       exists r, (zroot st r \/ exists l, ztaut s l = Some r) /\ reachable s [r] (RN id))
  | ZHAddVars k =>
    s_l2v s' = s_l2v s ++ seq (nlevels s) k /\
    s_v2l s' = s_v2l s ++ seq (nlevels s) k /\ s_handles s' = s_handles s /\
    (forall id nd, find_node s id = Some nd -> find_node s' id = Some nd)
  | ZHSetVarOrder order =>
    nlevels s' = nlevels s /\ s_handles s' = s_handles s /\
    forall a b, a < b < length order ->
      nth (nth a order 0) (s_v2l s') 0 < nth (nth b order 0) (s_v2l s') 0
  end.

(** ** Storing the result of an algorithm *)

Lemma hinvz_put : forall st s' c' d r, HInvZ st ->
  ZbddOK s' -> ZChainOK s' -> ZOKB s' c' -> NOFUT (nlevels s') c' -> ref_ok s' r ->
  HInvZ (mkHZ (put s' d r) c').
Proof.
  intros st s' c' d r I B' Hc' Q' N' Or. constructor; simpl.
  - apply zbddok_put; assumption.
  - apply zchain_set_handles. exact Hc'.
  - unfold put. change (nlevels (set_handles s' (hset (s_handles s') d (E r)))) with (nlevels s').
    apply zcacheokb_set_handles. exact Q'.
  - exact N'.
Qed.

Lemma framez_put : forall st o s' c' d r, HInvZ st -> zhdst o = Some d -> zchanges_order o = false ->
  ZbddOK s' -> extends (hz_s C st) s' ->
  hframe_z st o (mkHZ (put s' d r) c').
Proof.
  intros st o s' c' d r I Hd Hco B' X. pose proof (hzi_ok st I) as B.
  split; [|split; [|split; [|split]]]; simpl.
  - intros x Hx. rewrite Hd in Hx. unfold put. simpl.
    rewrite hget_hset_other by congruence. rewrite (ext_handles _ _ X). reflexivity.
  - intros r0 Hr. pose proof (zroot_ok st r0 I Hr) as Ok. split.
    + unfold put. apply (ext_ref_ok _ _ _ X Ok).
    + intros a. unfold put. rewrite zbfun_of_set_handles.
      change (nlevels (set_handles s' (hset (s_handles s') d (E r)))) with (nlevels s').
      rewrite (ext_nlevels _ _ X), newfalse_same, andb_true_r.
      apply (zbfun_of_extends _ _ r0 a B B' X Ok).
  - unfold put. change (nlevels (set_handles s' (hset (s_handles s') d (E r)))) with (nlevels s').
    rewrite (ext_nlevels _ _ X). lia.
  - intros _. split; [apply (ext_l2v _ _ X) | apply (ext_v2l _ _ X)].
  - intros _ r0 Hr. unfold put. rewrite fam_of_set_handles.
    apply (grows_fam _ s' r0 (zo_wf _ B) (zo_kind _ B) (extends_grows _ _ X) (zroot_ok st r0 I Hr)).
Qed.

Lemma zholds_put : forall s' c' d r F, (forall a, zbfun_of s' r a = F a) ->
  zholds (mkHZ (put s' d r) c') d F.
Proof.
  intros s' c' d r F HF. exists r. split.
  - unfold zslot, put. simpl. rewrite hget_hset_same. reflexivity.
  - intros a. simpl. unfold put. rewrite zbfun_of_set_handles. apply HF.
Qed.

Lemma zholds_fam_put : forall s' c' d r R Fm, fam_of s' r = Some R -> feq R Fm ->
  zholds_fam (mkHZ (put s' d r) c') d Fm.
Proof.
  intros s' c' d r R Fm ER Hq. exists r, R. split; [|split; [|exact Hq]].
  - unfold zslot, put. simpl. rewrite hget_hset_same. reflexivity.
  - simpl. unfold put. rewrite fam_of_set_handles. exact ER.
Qed.

(** the common part of all calls that run an algorithm and store its result [r]; what is
    left to show is what the destination holds *)
Lemma zfinish_ok : forall st o d s' c' r, HInvZ st -> zhdst o = Some d -> zchanges_order o = false ->
  ZbddOK s' -> extends (hz_s C st) s' -> ZOKB s' c' ->
  NOFUT (nlevels (hz_s C st)) c' -> ref_ok s' r ->
  hpost_z st o (mkHZ (put s' d r) c') ->
  exists st', Some (mkHZ (put s' d r) c') = Some st' /\ HInvZ st' /\ hframe_z st o st' /\ hpost_z st o st'.
Proof.
  intros st o d s' c' r I Hd Hco B' X Q' N' Or Po.
  pose proof (zchain_extends _ s' (hzi_ok st I) B' X (hzi_chain st I)) as Hc'.
  rewrite <- (ext_nlevels _ _ X) in N'.
  eexists. split; [reflexivity|]. split; [apply (hinvz_put st); assumption|].
  split; [apply framez_put; assumption | exact Po].
Qed.

(** ** One call *)

Theorem hstep_z_ok : forall st o, HInvZ st -> zhop_pre st o ->
  exists st', hstep_z st o = Some st' /\ HInvZ st' /\ hframe_z st o st' /\ hpost_z st o st'.
Proof.
  intros st o I Pre. pose proof (hzi_ok st I) as B. pose proof (hzi_chain st I) as Hc.
  pose proof (hzi_cache st I) as Q. pose proof (hzi_future st I) as NF.
  pose proof (zo_wf _ B) as H. pose proof (zo_kind _ B) as Hk.
  assert (Hlen : length (s_v2l (hz_s C st)) = nlevels (hz_s C st)) by (apply (wf_perm_len _ H)).
  set (n := nlevels (hz_s C st)) in *.
  (* the keys the algorithms of a manager with [n] levels insert *)
  set (KN := fun (k : N) (m : list nat) => k = zcode_restrict -> m = [n]).
  pose proof (znofuture_add C cget cadd Hlossy n : forall c k a m r, KN k m -> _) as NFadd.
  assert (Kop : forall op, KN (zop_code op) []) by (intros [| |] Hz; discriminate Hz).
  assert (Ksymm : KN zcode_symm []) by (intros Hz; discriminate Hz).
  assert (Kite : KN zcode_ite []) by (intros Hz; discriminate Hz).
  assert (Kr : KN zcode_restrict [n]) by (intros _; reflexivity).
  destruct o as [d b|d v neg|d x|op d x y|d x y z|d x cube|d|d|d v|op d x v|op d x y|d var hi lo
                 |d x|x| |k|order]; simpl in Pre; simpl hstep_z; fold n.
  - (* ZHConst *)
    destruct (zconst_bfun _ b B Hc) as [r [E [Or S]]]. rewrite E.
    apply (zfinish_ok st (ZHConst d b) d _ (hz_c C st) r I eq_refl eq_refl B (extends_refl _) Q NF Or).
    simpl. apply zholds_put. exact S.
  - (* ZHVar *)
    destruct neg.
    + destruct (znot_var_bfun gt C cget cadd Hlossy _ (hz_c C st) v B Hc Q Pre)
        as (s' & c' & r & E & (B' & _ & X & Q' & Or) & S).
      fold n in E. rewrite E. simpl zfinish.
      pose proof (znot_var_pres gt C cget cadd (NOFUT n) KN NFadd Kop _ _ _ _ _ _ _ E NF) as NF'.
      apply (zfinish_ok st (ZHVar d v true) d s' c' r I eq_refl eq_refl B' X Q' NF' Or).
      simpl. apply zholds_put. intros a. rewrite S. reflexivity.
    + destruct (zvar_bfun _ v B Hc Pre) as (s' & r & E & B' & _ & X & Or & S).
      rewrite E. simpl zfinish0.
      apply (zfinish_ok st (ZHVar d v false) d s' (hz_c C st) r I eq_refl eq_refl B' X
                  (zcacheokb_extends C cget _ s' _ B X Q) NF Or). simpl. apply zholds_put.
      intros a. rewrite S. destruct (var_s v a); reflexivity.
  - (* ZHNot *)
    destruct Pre as [f Ef]. rewrite Ef. pose proof (zslot_ok st x f I Ef) as Of.
    destruct (zapply_not_bfun gt C cget cadd Hlossy _ (hz_c C st) f B Hc Q Of)
      as (s' & c' & r & E & (B' & _ & X & Q' & Or) & S).
    fold n in E. rewrite E. simpl zfinish.
    pose proof (zapply_not_pres gt C cget cadd (NOFUT n) KN NFadd Kop _ _ _ _ _ _ _ E NF) as NF'.
    apply (zfinish_ok st (ZHNot d x) d s' c' r I eq_refl eq_refl B' X Q' NF' Or).
    simpl. exists f. split; [exact Ef|]. apply zholds_put. exact S.
  - (* ZHBin *)
    destruct Pre as [[f Ef] [g Eg]]. rewrite Ef, Eg.
    pose proof (zslot_ok st x f I Ef) as Of. pose proof (zslot_ok st y g I Eg) as Og.
    destruct (zapply_op_bfun gt C cget cadd Hlossy op _ (hz_c C st) f g B Hc Q Of Og)
      as (s' & c' & r & E & (B' & _ & X & Q' & Or) & S).
    fold n in E. rewrite E. simpl zfinish.
    pose proof (zapply_op_pres gt C cget cadd (NOFUT n) KN NFadd Kop Ksymm Kite _ _ _ _ _ _ _ _ _ E NF) as NF'.
    apply (zfinish_ok st (ZHBin op d x y) d s' c' r I eq_refl eq_refl B' X Q' NF' Or).
    simpl. exists f, g. split; [exact Ef|]. split; [exact Eg|]. apply zholds_put. exact S.
  - (* ZHIte *)
    destruct Pre as [[f Ef] [[g Eg] [h Eh]]]. rewrite Ef, Eg, Eh.
    pose proof (zslot_ok st x f I Ef) as Of. pose proof (zslot_ok st y g I Eg) as Og.
    pose proof (zslot_ok st z h I Eh) as Oh.
    destruct (zapply_ite_bfun gt C cget cadd Hlossy _ (hz_c C st) f g h B Hc Q Of Og Oh)
      as (s' & c' & r & E & (B' & _ & X & Q' & Or) & S).
    fold n in E. rewrite E. simpl zfinish.
    pose proof (zapply_ite_pres gt C cget cadd (NOFUT n) KN NFadd Kop Kite _ _ _ _ _ _ _ _ _ E NF) as NF'.
    apply (zfinish_ok st (ZHIte d x y z) d s' c' r I eq_refl eq_refl B' X Q' NF' Or).
    simpl. exists f, g, h. split; [exact Ef|]. split; [exact Eg|]. split; [exact Eh|]. apply zholds_put. exact S.
  - (* ZHRestrict *)
    destruct Pre as [[f Ef] [V [M [Ev Hcube]]]]. rewrite Ef, Ev.
    pose proof (zslot_ok st x f I Ef) as Of. pose proof (zslot_ok st cube V I Ev) as Ov.
    destruct (zrestrict_edge_cube C cget cadd Hlossy _ _ (hz_c C st) f V M B Hc Q Of Hcube (le_n _))
      as (s' & c' & r & E & (B' & _ & X & Q' & Or) & _).
    fold n in E. rewrite E. simpl zfinish.
    pose proof (proj2 (zrestrict_pres C cget cadd (NOFUT n) KN NFadd n Kr _ _ _ _ _ _ _ _ _ E) eq_refl NF) as NF'.
    apply (zfinish_ok st (ZHRestrict d x cube) d s' c' r I eq_refl eq_refl B' X Q' NF' Or).
    simpl. exists f, V. split; [exact Ef|]. split; [exact Ev|].
    intros lits Hnd Hrange Hlits. apply zholds_put.
    destruct (zrestrict_edge_is_cube C cget cadd Hlossy _ (hz_c C st) f V lits B Hc Q Of Ov Hnd Hrange Hlits)
      as (s2 & c2 & r2 & E2 & _ & S & _).
    fold n in E2. rewrite E in E2. inversion E2; subst s2 c2 r2. exact S.
  - (* ZHEmpty *)
    destruct (zempty_sound _ B) as [r [E [Or EF]]]. rewrite E.
    apply (zfinish_ok st (ZHEmpty d) d _ (hz_c C st) r I eq_refl eq_refl B (extends_refl _) Q NF Or). simpl.
    apply (zholds_fam_put _ _ _ _ _ _ EF). apply feq_refl.
  - (* ZHBase *)
    destruct (zbase_sound _ B) as [r [E [Or EF]]]. rewrite E.
    apply (zfinish_ok st (ZHBase d) d _ (hz_c C st) r I eq_refl eq_refl B (extends_refl _) Q NF Or). simpl.
    apply (zholds_fam_put _ _ _ _ _ _ EF). apply feq_refl.
  - (* ZHSingleton *)
    destruct (zsingleton_sound _ v B ltac:(rewrite Hlen; exact Pre))
      as (vl & s' & r & R & Ev & E & B' & X & Or & ER & Hq).
    rewrite E. simpl zfinish0.
    apply (zfinish_ok st (ZHSingleton d v) d s' (hz_c C st) r I eq_refl eq_refl B' X
                (zcacheokb_extends C cget _ s' _ B X Q) NF Or). simpl.
    exists vl. split; [exact Ev|]. apply (zholds_fam_put _ _ _ _ R _ ER Hq).
  - (* ZHSub *)
    destruct Pre as [[f Ef] Hv]. rewrite Ef. pose proof (zslot_ok st x f I Ef) as Of.
    destruct (fam_of_total _ H Hk f Of) as [F EF].
    destruct (nth_error (s_v2l (hz_s C st)) v) as [vl|] eqn:Ev; [|apply nth_error_None in Ev; lia].
    pose proof (rlevel_le _ H f) as Hrl.
    destruct (zsubset_okB C cget cadd Hlossy op v vl (S n) _ (hz_c C st) f (pof F) B Q
                (zden_of_fam _ f F Of EF) Ev ltac:(unfold n; lia))
      as (s' & c' & r & E & B' & X & Q' & D).
    unfold zsubset_top. rewrite Ev, E. simpl zfinish.
    pose proof (zsubset_pres C cget cadd (NOFUT n) KN NFadd op v vl ltac:(intros Hz; destruct op; discriminate Hz)
                  _ _ _ _ _ _ _ E NF) as NF'.
    apply (zfinish_ok st (ZHSub op d x v) d s' c' r I eq_refl eq_refl B' X Q' NF' (zden_ok _ _ _ D)). simpl.
    exists f, F, vl. split; [exact Ef|]. split; [exact EF|]. split; [exact Ev|].
    destruct (zden_fam s' r _ D) as [R [ER HR]]. apply (zholds_fam_put _ _ _ _ R _ ER).
    intros S. rewrite (HR S). apply psub_f_sub.
  - (* ZHSet *)
    destruct Pre as [[f Ef] [g Eg]]. rewrite Ef, Eg.
    pose proof (zslot_ok st x f I Ef) as Of. pose proof (zslot_ok st y g I Eg) as Og.
    destruct (fam_of_total _ H Hk f Of) as [F EF]. destruct (fam_of_total _ H Hk g Og) as [G EG].
    pose proof (rlevel_le _ H f) as Hrf. pose proof (rlevel_le _ H g) as Hrg.
    destruct (zapply_okB gt C cget cadd Hlossy op (S n) _ (hz_c C st) f g (pof F) (pof G) B Q
                (zden_of_fam _ f F Of EF) (zden_of_fam _ g G Og EG) ltac:(unfold n; lia))
      as (s' & c' & r & E & B' & X & Q' & D).
    rewrite E. simpl zfinish.
    pose proof (zapply_pres gt C cget cadd (NOFUT n) KN NFadd Kop _ _ _ _ _ _ _ _ _ E NF) as NF'.
    apply (zfinish_ok st (ZHSet op d x y) d s' c' r I eq_refl eq_refl B' X Q' NF' (zden_ok _ _ _ D)). simpl.
    exists f, g, F, G. split; [exact Ef|]. split; [exact Eg|]. split; [exact EF|]. split; [exact EG|].
    destruct (zden_fam s' r _ D) as [R [ER HR]]. apply (zholds_fam_put _ _ _ _ R _ ER).
    intros S. rewrite (HR S). apply pbin_f_bin.
  - (* ZHMakeNode *)
    destruct Pre as (v & h & l & Fv & L & Ev & Eh & El & EFv & Hq & Lh & Ll). rewrite Ev, Eh, El.
    pose proof (zslot_ok st var v I Ev) as Ov. pose proof (zslot_ok st hi h I Eh) as Oh.
    pose proof (zslot_ok st lo l I El) as Ol.
    destruct (zmake_node_sound _ v h l Fv L B Ov Oh Ol EFv Hq Lh Ll)
      as (s' & r & A & Bf & R & E & B' & X & Or & EA & EB & ER & HR).
    rewrite E. simpl zfinish0.
    apply (zfinish_ok st (ZHMakeNode d var hi lo) d s' (hz_c C st) r I eq_refl eq_refl B' X
                (zcacheokb_extends C cget _ s' _ B X Q) NF Or). simpl.
    exists v, h, l, Fv, L, A, Bf. repeat (split; [assumption|]). apply (zholds_fam_put _ _ _ _ R _ ER HR).
  - (* ZHClone *)
    destruct Pre as [f Ef]. rewrite Ef. pose proof (zslot_ok st x f I Ef) as Of.
    apply (zfinish_ok st (ZHClone d x) d _ (hz_c C st) f I eq_refl eq_refl B (extends_refl _) Q NF Of).
    simpl. unfold put. simpl. rewrite hget_hset_same.
    unfold zslot in Ef. destruct (hget (s_handles (hz_s C st)) x) as [e|] eqn:Eg; [|discriminate].
    inversion Ef; subst. split.
    + f_equal. apply edge_ext; [reflexivity|]. simpl. symmetry.
      apply (z_handle_ok _ (x, e) B (hget_In _ _ _ Eg)).
    + exists (eref e). unfold zslot. simpl. rewrite hget_hset_same. reflexivity.
  - (* ZHDrop *)
    eexists. split; [reflexivity|]. split; [|split].
    + constructor; simpl.
      * apply zbddok_drop. exact B.
      * apply zchain_set_handles. exact Hc.
      * change (nlevels (set_handles (hz_s C st) (hdel (s_handles (hz_s C st)) x))) with n.
        apply zcacheokb_set_handles. exact Q.
      * exact NF.
    + split; [|split; [|split; [|split]]]; simpl.
      * intros y Hy. apply hget_hdel_other. congruence.
      * intros r Hr. split; [apply (zroot_ok st r I Hr)|]. intros a.
        rewrite zbfun_of_set_handles.
        change (nlevels (set_handles (hz_s C st) (hdel (s_handles (hz_s C st)) x))) with (nlevels (hz_s C st)).
        rewrite newfalse_same, andb_true_r. reflexivity.
      * apply le_n.
      * intros _. split; reflexivity.
      * intros _ r _. apply fam_of_set_handles.
    + simpl. split; [apply hget_hdel_same | reflexivity].
  - (* ZHGc *)
    destruct (zgc_facts _ B Hc) as [Bg [Hcg [Xg [Hh Hlive]]]].
    set (sg := set_handles (gc_model (with_chain (hz_s C st))) (s_handles (hz_s C st))) in *.
    eexists. split; [reflexivity|]. split; [|split].
    + constructor; simpl; [exact Bg | exact Hcg | apply zokb_empty | apply nofut_empty].
    + split; [|split; [|split; [|split]]]; simpl.
      * intros x _. reflexivity.
      * intros r [h [Hin <-]]. pose proof (Hh h Hin) as Ok. split; [exact Ok|]. intros a.
        fold sg. rewrite (ext_nlevels _ _ Xg), newfalse_same, andb_true_r.
        symmetry. apply (zbfun_of_extends sg _ _ a Bg B Xg Ok).
      * fold sg. rewrite (ext_nlevels _ _ Xg). apply le_n.
      * intros _. fold sg. split; [symmetry; apply (ext_l2v _ _ Xg) | symmetry; apply (ext_v2l _ _ Xg)].
      * intros _ r [h [Hin <-]]. fold sg. symmetry.
        apply (grows_fam sg _ _ (zo_wf _ Bg) (zo_kind _ Bg) (extends_grows _ _ Xg) (Hh h Hin)).
    + simpl. intros id nd E0. fold sg in E0. destruct (Hlive id nd E0) as [E1 R1]. split; [exact E1|].
      destruct (reachable_one _ (hz_s C st) _ _ (fun _ => eq_refl) R1) as [r [Hin Rr]].
      exists r. split; [|exact Rr]. unfold handle_refs in Hin. apply in_map_iff in Hin. destruct Hin as [h [<- Hin]].
      unfold with_chain in Hin. simpl in Hin. apply in_app_iff in Hin. destruct Hin as [Hin|Hin].
      * left. exists h. auto.
      * right. destruct (zchain_roots_In _ h Hin) as (l & t & _ & Et & ->). exists l. exact Et.
  - (* ZHAddVars: the cache is kept; no Restrict entry is keyed with the new number of levels unless it is the old one *)
    destruct (zadd_vars_facts _ k B) as (s' & ch & E & B' & Hc' & G & Hn & Hv2l & Hl2v & Hh & Hold).
    rewrite E. eexists. split; [reflexivity|]. split; [|split].
    + constructor; simpl; [exact B' | exact Hc' | |].
      * apply (zcacheokb_grows C cget _ s' (hz_c C st) B G); [| | exact Q].
        -- intros var vl Ev. rewrite Hv2l. rewrite nth_error_app1; [exact Ev|]. apply nth_error_Some. congruence.
        -- intros a r E0. fold n.
           apply (znofuture_later C cget n (nlevels s') _ a r NF ltac:(fold n in Hn; lia) E0).
      * apply (znofuture_mono C cget n); [fold n in Hn; lia | exact NF].
    + split; [|split; [|split; [|split]]]; simpl.
      * intros x _. rewrite Hh. reflexivity.
      * intros r Hr. pose proof (zroot_ok st r I Hr) as Ok. destruct (Hold r Ok) as [O' [_ Hb]].
        split; [exact O' | exact Hb].
      * lia.
      * discriminate.
      * intros _ r Hr. apply (proj1 (proj2 (Hold r (zroot_ok st r I Hr)))).
    + simpl. split; [exact Hl2v|]. split; [exact Hv2l|]. split; [exact Hh|]. apply (gr_nodes _ _ G).
  - (* ZHSetVarOrder *)
    destruct Pre as [Hnd Hr].
    assert (Hsame : hframe_z st (ZHSetVarOrder order) st).
    { split; [intros; reflexivity|]. split; [|split; [apply le_n | split; discriminate]].
      intros r Hrr. split; [apply (zroot_ok st r I Hrr)|]. intros a.
      rewrite newfalse_same, andb_true_r. reflexivity. }
    destruct (Nat.leb (length order) 1) eqn:Elen.
    { exists st. split; [reflexivity|]. split; [exact I|]. split; [exact Hsame|]. simpl.
      split; [reflexivity|]. split; [reflexivity|]. intros a b Hab. apply Nat.leb_le in Elen. lia. }
    assert (Eok : order_ok_b n order = true)
      by (apply order_ok_b_valid; split; assumption).
    rewrite Eok.
    destruct (nat_list_eqb _ (seq 0 n)) eqn:Esorted.
    { exists st. split; [reflexivity|]. split; [exact I|]. split; [exact Hsame|]. simpl.
      split; [reflexivity|]. split; [reflexivity|]. apply nat_list_eqb_eq in Esorted.
      apply (sorted_respects _ order H Hnd Hr Esorted). }
    destruct (zreorder_facts _ order B Hc Hnd Hr) as [B2 [Hc2 [Hn2 [Hh2 [Hf2 Hresp]]]]].
    eexists. split; [reflexivity|]. split; [|split].
    + constructor; simpl; [exact B2 | exact Hc2 | apply zokb_empty | apply nofut_empty].
    + split; [|split; [|split; [|split]]]; simpl.
      * intros x _. rewrite Hh2. reflexivity.
      * intros r [h [Hin <-]]. destruct (Hf2 h Hin) as [O2 F2]. split; [exact O2|]. intros a.
        rewrite Hn2, newfalse_same, andb_true_r. apply F2.
      * rewrite Hn2. apply le_n.
      * discriminate.
      * discriminate.
    + simpl. split; [exact Hn2|]. split; [exact Hh2 | exact Hresp].
Qed.

End HistZ.
