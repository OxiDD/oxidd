(** * ZBDD: result correctness along histories; the result is determined by the
      operator, the operands' FUNCTIONS and the variable order

    - [hspec_z st o d F]: read off the spec layer (DD/Sem.v for the Boolean
      interface, Mgr/HistoryZFam.v for the set-family interface): call [o] issued
      in state [st] is to leave the function [F] in slot [d].  [F] is given in
      terms of the functions the operand slots hold ([zholds]), never in terms
      of edges, node ids, cache contents or the way the operands were obtained;
    - [hstep_z_spec]: in every state satisfying the invariant (so: after every
      history) the call completes and its destination holds [F];
    - [histz_result_unique]: every slot that holds [F] afterwards holds the very
      edge that was returned;
    - [histz_result_determined]: two managers with arbitrary different histories,
      operand orders and cache implementations but the same variable order:
      calls with the same spec function return edges with the same function
      and the same node count (isomorphic diagrams);
    - [histz_fresh_equiv]: the instance "history with reorderings / collections
      / added variables vs. freshly built manager". *)

From Coq Require Import List NArith PArith Bool Arith Lia FMapPositive.
From OxiVerif Require Import DD.Table DD.TableExtra DD.TableProofs DD.Sem DD.QuantSpecProofs DD.Build DD.BuildProofs
  DD.Apply DD.ApplyProofs DD.ApplyEvalProofs DD.ConfigApply DD.CanonZbdd DD.FamSpec DD.FamSpecProofs
  DD.ZbddOps DD.ZbddOpsProofs DD.ZbddSubsetProofs DD.ZbddSoundProofs DD.ZbddVars DD.ZbddVarsProofs
  DD.ZbddBool DD.ZbddBoolProofs DD.ZbddEvalProofs
  DD.ZbddRestrictProofs DD.ZbddRestrictTop DD.ZbddCubeCanon
  DD.ConfigInsert DD.ConfigRun DD.ConfigZbddRun DD.ConfigZbddIndep
  Mgr.LevelSwap Mgr.LevelSwapProofs Mgr.LevelSwapOrder Mgr.LevelSwapZ Mgr.LevelSwapZProofs
  Mgr.LevelSwapZChain Mgr.LevelSwapZOrder Mgr.LevelSwapZFam
  Mgr.History Mgr.HistoryBase Mgr.HistoryZ Mgr.HistoryZBase Mgr.HistoryZFam Mgr.HistoryZProofs Mgr.HistoryZThms.
Import ListNotations.

Local Arguments hset : simpl never.
Local Arguments hget : simpl never.
Local Arguments hdel : simpl never.
Local Arguments zbfun_of : simpl never.
Local Arguments fam_of : simpl never.

Definition bfeq (f g : bfun) : Prop := forall a, f a = g a.

(** the conjunction of the literals [lits] *)
Definition zcube_fun (lits : list (nat * bool)) : bfun :=
  fun a => forallb (fun p : nat * bool => Bool.eqb (a (fst p)) (snd p)) lits.

(** no member of the family contains a variable whose level is at or above the level of [v] *)
Definition zabove (s : snap) (v : nat) (F : bfun) : Prop :=
  forall a u, u < nlevels s -> nth u (s_v2l s) 0 <= nth v (s_v2l s) 0 -> a u = true -> F a = false.

(** ** From functions to the structural preconditions of [make_node] *)

Lemma singleton_fun_fam : forall s r v L, ZbddOK s -> ref_ok s r -> nth_error (s_v2l s) v = Some L ->
  (forall a, zbfun_of s r a = singleton_s (nlevels s) v a) ->
  exists Fv, fam_of s r = Some Fv /\ feq Fv (f_singleton L).
Proof.
  intros s r v L B O Ev Hf. pose proof (zo_wf s B) as H. pose proof (zo_kind s B) as Hk.
  destruct (fam_of_total s H Hk r O) as [Fv EF]. exists Fv. split; [exact EF|].
  pose proof (set_levels_single s H v L Ev) as E0.
  intros T. rewrite in_f_singleton. split.
  - intros HT. pose proof (fam_member_is_set s r Fv T H Hk EF HT) as ET.
    rewrite <- ET, <- E0. apply (set_levels_ext s H). intros u Hu.
    assert (Hs : singleton_s (nlevels s) v (vset s T) = true).
    { rewrite <- Hf, (zbfun_fam s r Fv _ B O EF), ET. apply fmem_spec. exact HT. }
    unfold singleton_s in Hs. rewrite forallb_seq0 in Hs. apply eqb_prop. apply Hs. exact Hu.
  - intros ->. rewrite <- E0. apply fmem_spec. rewrite <- (zbfun_fam s r Fv _ B O EF), Hf.
    unfold singleton_s. apply forallb_seq0. intros u _. apply eqb_reflx.
Qed.

Lemma above_rlevel : forall s r v L, ZbddOK s -> ref_ok s r -> nth_error (s_v2l s) v = Some L ->
  zabove s v (zbfun_of s r) -> L < rlevel s r.
Proof.
  intros s r v L B O Ev Hab. pose proof (zo_wf s B) as H. pose proof (zo_kind s B) as Hk.
  pose proof (v2l_range s v L H Ev) as HL.
  destruct r as [t|id]; [simpl; exact HL|].
  destruct O as [nd En]. rewrite (rlevel_node s id nd En).
  destruct (Nat.lt_ge_cases L (nlevel nd)) as [Hlt|Hge]; [exact Hlt|]. exfalso.
  pose proof (wf_level s H id nd En) as Hnl.
  destruct (fam_nonempty s B (nlevels s) (RN id) (ex_intro _ nd En) ltac:(lia) ltac:(intros t Hx; discriminate))
    as [F [S0 [EF [HS Hh]]]].
  destruct (Hh id nd eq_refl En) as [T ->].
  pose proof (fam_member_is_set s (RN id) F _ H Hk EF HS) as ET.
  set (a := vset s (nlevel nd :: T)) in *.
  assert (Ht : zbfun_of s (RN id) a = true).
  { rewrite (zbfun_fam s (RN id) F a B (ex_intro _ nd En) EF), ET. apply fmem_spec. exact HS. }
  destruct (wf_l2v_v2l s (nlevel nd) H Hnl) as [Hu Hinv].
  rewrite (Hab a (nth (nlevel nd) (s_l2v s) 0) Hu) in Ht; [discriminate| |].
  - rewrite Hinv, (nth_error_nth _ _ 0 Ev). exact Hge.
  - unfold a, vset. rewrite Hinv. simpl. rewrite Nat.eqb_refl. reflexivity.
Qed.

Lemma same_fun_fam_incl : forall s1 s2 r1 r2 F1 F2, ZbddOK s1 -> ZbddOK s2 ->
  s_l2v s1 = s_l2v s2 -> s_v2l s1 = s_v2l s2 -> ref_ok s1 r1 -> ref_ok s2 r2 ->
  fam_of s1 r1 = Some F1 -> fam_of s2 r2 = Some F2 ->
  (forall a, zbfun_of s1 r1 a = zbfun_of s2 r2 a) -> forall S, In S F1 -> In S F2.
Proof.
  intros s1 s2 r1 r2 F1 F2 B1 B2 Hl Hv O1 O2 E1 E2 Heq S HS.
  pose proof (fam_member_is_set s1 r1 F1 S (zo_wf s1 B1) (zo_kind s1 B1) E1 HS) as ET.
  set (a := vset s1 S) in *.
  assert (Ht : zbfun_of s1 r1 a = true).
  { rewrite (zbfun_fam s1 r1 F1 a B1 O1 E1), ET. apply fmem_spec. exact HS. }
  rewrite Heq, (zbfun_fam s2 r2 F2 a B2 O2 E2), (set_levels_l2v s1 s2 a (eq_sym Hl)), ET in Ht.
  apply fmem_spec. exact Ht.
Qed.

(** same isomorphism class: equal functions of the variables, equal node counts *)
Lemma same_fun_same_count_z : forall s1 s2 r1 r2, ZbddOK s1 -> ZbddOK s2 ->
  s_l2v s1 = s_l2v s2 -> s_v2l s1 = s_v2l s2 -> ref_ok s1 r1 -> ref_ok s2 r2 ->
  (forall a, zbfun_of s1 r1 a = zbfun_of s2 r2 a) ->
  count_reach s1 (E r1) = count_reach s2 (E r2).
Proof.
  intros s1 s2 r1 r2 B1 B2 Hl Hv O1 O2 Heq.
  assert (Hn : nlevels s1 = nlevels s2) by (unfold nlevels; rewrite Hl; reflexivity).
  destruct (fam_of_total s1 (zo_wf s1 B1) (zo_kind s1 B1) r1 O1) as [F1 E1].
  destruct (fam_of_total s2 (zo_wf s2 B2) (zo_kind s2 B2) r2 O2) as [F2 E2].
  apply (count_reach_fam s1 s2 B1 B2 Hn r1 r2 F1 F2 O1 O2 E1 E2).
  intros S. split.
  - apply (same_fun_fam_incl s1 s2 r1 r2 F1 F2 B1 B2 Hl Hv O1 O2 E1 E2 Heq).
  - apply (same_fun_fam_incl s2 s1 r2 r1 F2 F1 B2 B1 (eq_sym Hl) (eq_sym Hv) O2 O1 E2 E1 (fun a => eq_sym (Heq a))).
Qed.

Section SpecZ.
Variable gt : ref -> ref -> bool.
Variable C : Type.
Variable cget : C -> N -> list ref -> list nat -> option ref.
Variable cadd : C -> N -> list ref -> list nat -> ref -> C.
Hypothesis Hlossy : zlossy C cget cadd.
Variable cempty : C.
Hypothesis Hempty : forall k a m, cget cempty k a m = None.

Notation hstate_z := (hstate_z C).
Notation hstep_z := (hstep_z gt C cget cadd cempty).
Notation hrun_z := (hrun_z gt C cget cadd cempty).
Notation HInvZ := (HInvZ C cget).
Notation zhop_pre := (zhop_pre C).
Notation hframe_z := (hframe_z C).
Notation hpost_z := (hpost_z C).
Notation zholds := (zholds C).
Notation hinit_z := (hinit_z C cempty).
Notation step_ok := (hstep_z_ok gt C cget cadd Hlossy cempty Hempty).

Lemma zholds_ext : forall st d F F', zholds st d F -> bfeq F F' -> zholds st d F'.
Proof. intros st d F F' [r [E HF]] Hf. exists r. split; [exact E|]. intros a. rewrite HF. apply Hf. Qed.

Lemma zholds_slot : forall st d F r, zholds st d F -> zslot C st d = Some r -> bfeq (zbfun_of (hz_s C st) r) F.
Proof. intros st d F r [r0 [E HF]] Er. rewrite E in Er. inversion Er; subst. exact HF. Qed.

Lemma zholds_occupied : forall st d F, zholds st d F -> zoccupied C st d.
Proof. intros st d F [r [E _]]. exists r. exact E. Qed.

Inductive hspec_z (st : hstate_z) : zhop -> N -> bfun -> Prop :=
| ZSpConst : forall d b, hspec_z st (ZHConst d b) d (const_s b)
| ZSpVar : forall d v neg, v < nlevels (hz_s C st) ->
    hspec_z st (ZHVar d v neg) d (fun a => xorb neg (var_s v a))
| ZSpNot : forall d x f, zholds st x f -> hspec_z st (ZHNot d x) d (lift1 negb f)
| ZSpBin : forall op d x y f g, zholds st x f -> zholds st y g ->
    hspec_z st (ZHBin op d x y) d (lift2 op f g)
| ZSpIte : forall d x y z f g h, zholds st x f -> zholds st y g -> zholds st z h ->
    hspec_z st (ZHIte d x y z) d (ite_s f g h)
| ZSpRestrict : forall d x cube f lits, zholds st x f -> zholds st cube (zcube_fun lits) ->
    NoDup (map fst lits) -> (forall v b, In (v, b) lits -> v < nlevels (hz_s C st)) ->
    hspec_z st (ZHRestrict d x cube) d (restrict_s lits f)
| ZSpEmpty : forall d, hspec_z st (ZHEmpty d) d (const_s false)
| ZSpBase : forall d, hspec_z st (ZHBase d) d (base_s (nlevels (hz_s C st)))
| ZSpSingleton : forall d v, v < nlevels (hz_s C st) ->
    hspec_z st (ZHSingleton d v) d (singleton_s (nlevels (hz_s C st)) v)
| ZSpSub : forall op d x v f, zholds st x f -> v < nlevels (hz_s C st) ->
    hspec_z st (ZHSub op d x v) d (zsub_s op v f)
| ZSpSet : forall op d x y f g, zholds st x f -> zholds st y g ->
    hspec_z st (ZHSet op d x y) d (zop_s op f g)
| ZSpMakeNode : forall d var hi lo v h l, v < nlevels (hz_s C st) ->
    zholds st var (singleton_s (nlevels (hz_s C st)) v) -> zholds st hi h -> zholds st lo l ->
    zabove (hz_s C st) v h -> zabove (hz_s C st) v l ->
    hspec_z st (ZHMakeNode d var hi lo) d (mknode_s v h l)
| ZSpClone : forall d x f, zholds st x f -> hspec_z st (ZHClone d x) d f.

Lemma hspec_z_dst : forall st o d F, hspec_z st o d F -> zhdst o = Some d.
Proof. intros st o d F S. destruct S; reflexivity. Qed.

Lemma hspec_z_order : forall st o d F, hspec_z st o d F -> zchanges_order o = false /\ zkeeps_levels o = true.
Proof. intros st o d F S. destruct S; split; reflexivity. Qed.

Lemma v2l_some : forall s v, WF s -> v < nlevels s -> exists L, nth_error (s_v2l s) v = Some L.
Proof.
  intros s v H Hv. exists (nth v (s_v2l s) 0). apply nth_error_nth'. rewrite (wf_perm_len s H). exact Hv.
Qed.

Lemma zabove_ext : forall s v F F', zabove s v F -> bfeq F' F -> zabove s v F'.
Proof. intros s v F F' Ha Hf a u Hu Hl Hau. rewrite Hf. apply (Ha a u Hu Hl Hau). Qed.

Lemma hspec_z_pre : forall st o d F, HInvZ st -> hspec_z st o d F -> zhop_pre st o.
Proof.
  intros st o d F I S. pose proof (hzi_ok C cget st I) as B. pose proof (zo_wf _ B) as H.
  destruct S; simpl; try exact Logic.I; try assumption;
    try (repeat match goal with |- _ /\ _ => split end; eauto using zholds_occupied; fail).
  - (* restrict: the cube operand has the cube shape *)
    split; [apply (zholds_occupied _ _ _ H0)|].
    destruct H1 as [V [Ev HV]]. pose proof (zslot_ok C cget st cube V I Ev) as Ov.
    exists V, (lits_levels (hz_s C st) lits). split; [exact Ev|].
    assert (Hc : is_zcube (hz_s C st) V lits) by (intros a; apply HV).
    pose proof (is_zcube_den _ V lits B Ov H2 H3 Hc) as D.
    apply (zcube_of_den _ B _ 0 V _ (le_n _) ltac:(lia) D).
  - (* make_node *)
    destruct H1 as [rv [Ev Fv]]. destruct H2 as [rh [Eh Fh]]. destruct H3 as [rl [El Fl]].
    destruct (v2l_some _ v H H0) as [L EL].
    pose proof (zslot_ok C cget st var rv I Ev) as Ov. pose proof (zslot_ok C cget st hi rh I Eh) as Oh.
    pose proof (zslot_ok C cget st lo rl I El) as Ol.
    destruct (singleton_fun_fam _ rv v L B Ov EL Fv) as [Fam [EF Hq]].
    exists rv, rh, rl, Fam, L. repeat (split; [assumption|]). split.
    + apply (above_rlevel _ rh v L B Oh EL). apply (zabove_ext _ v h _ H4). exact Fh.
    + apply (above_rlevel _ rl v L B Ol EL). apply (zabove_ext _ v l _ H5). exact Fl.
Qed.

(** what the frame says about an operand of a call that keeps the order *)
Lemma frame_operand : forall st o st' x r, hframe_z st o st' -> zchanges_order o = false ->
  zkeeps_levels o = true -> zslot C st x = Some r ->
  ref_ok (hz_s C st') r /\ bfeq (zbfun_of (hz_s C st') r) (zbfun_of (hz_s C st) r) /\
  fam_of (hz_s C st') r = fam_of (hz_s C st) r /\
  nlevels (hz_s C st') = nlevels (hz_s C st) /\ s_v2l (hz_s C st') = s_v2l (hz_s C st).
Proof.
  intros st o st' x r [_ [F2 [_ [F4 F5]]]] Hco Hkl Er.
  pose proof (zslot_root C st x r Er) as Hr. destruct (F2 r Hr) as [O Hb].
  destruct (F4 Hco) as [Hl Hv].
  assert (Hn : nlevels (hz_s C st') = nlevels (hz_s C st)) by (unfold nlevels; rewrite Hl; reflexivity).
  split; [exact O|]. split; [|split; [apply (F5 Hkl r Hr) | split; [exact Hn | exact Hv]]].
  intros a. rewrite Hb, Hn, newfalse_same, andb_true_r. reflexivity.
Qed.

(** (4) the destination holds the spec function, whatever happened before *)
Theorem hstep_z_spec : forall st o d F, HInvZ st -> hspec_z st o d F ->
  exists st', hstep_z st o = Some st' /\ HInvZ st' /\ hframe_z st o st' /\ zholds st' d F.
Proof.
  intros st o d F I S. pose proof (hspec_z_pre st o d F I S) as Pre.
  destruct (hspec_z_order st o d F S) as [Hco Hkl].
  destruct (step_ok st o I Pre) as [st' [E [I' [Fr P]]]].
  exists st'. split; [exact E|]. split; [exact I'|]. split; [exact Fr|].
  pose proof (hzi_ok C cget st I) as B. pose proof (zo_wf _ B) as H.
  pose proof (hzi_ok C cget st' I') as B'.
  pose proof (fun x r => frame_operand st o st' x r Fr Hco Hkl) as Fop.
  destruct S; simpl in P.
  - exact P.
  - exact P.
  - destruct P as [f0 [E0 P]]. apply (zholds_ext _ _ _ _ P).
    intros a. unfold lift1. rewrite (zholds_slot st x f f0 H0 E0 a). reflexivity.
  - destruct P as [f0 [g0 [E0 [E1 P]]]]. apply (zholds_ext _ _ _ _ P).
    intros a. unfold lift2. rewrite (zholds_slot st x f f0 H0 E0 a), (zholds_slot st y g g0 H1 E1 a). reflexivity.
  - destruct P as [f0 [g0 [h0 [E0 [E1 [E2 P]]]]]]. apply (zholds_ext _ _ _ _ P).
    intros a. unfold ite_s.
    rewrite (zholds_slot st x f f0 H0 E0 a), (zholds_slot st y g g0 H1 E1 a), (zholds_slot st z h h0 H2 E2 a).
    reflexivity.
  - destruct P as [f0 [V [E0 [E1 P]]]].
    specialize (P lits H2 H3 (zholds_slot st cube _ V H1 E1)).
    apply (zholds_ext _ _ _ _ P). intros a. apply restrict_s_ext. apply (zholds_slot st x f f0 H0 E0).
  - (* empty *)
    destruct P as [r [R [Er [ER Hq]]]]. exists r. split; [exact Er|]. intros a.
    apply (fam_empty_bfun _ B' r R a (zslot_ok C cget st' d r I' Er) ER Hq).
  - (* base *)
    destruct P as [r [R [Er [ER Hq]]]]. exists r. split; [exact Er|]. intros a.
    rewrite (fam_base_bfun _ B' r R a (zslot_ok C cget st' d r I' Er) ER Hq).
    destruct Fr as [_ [_ [_ [F4 _]]]]. destruct (F4 Hco) as [Hl _]. unfold nlevels. rewrite Hl. reflexivity.
  - (* singleton *)
    destruct P as [vl [Ev [r [R [Er [ER Hq]]]]]]. exists r. split; [exact Er|]. intros a.
    destruct Fr as [_ [_ [_ [F4 _]]]]. destruct (F4 Hco) as [Hl Hv].
    rewrite (fam_singleton_bfun _ B' v vl r R a (zslot_ok C cget st' d r I' Er) ltac:(rewrite Hv; exact Ev) ER Hq).
    unfold nlevels. rewrite Hl. reflexivity.
  - (* subset0 / subset1 / change *)
    destruct P as [f0 [F0 [vl [E0 [EF [Ev [r [R [Er [ER Hq]]]]]]]]]].
    destruct (Fop x f0 E0) as [O0 [Hb0 [Hf0 [Hn Hv]]]].
    exists r. split; [exact Er|]. intros a.
    rewrite (fam_sub_bfun _ B' op v vl f0 r F0 R a O0 (zslot_ok C cget st' d r I' Er)
               ltac:(rewrite Hv; exact Ev) ltac:(rewrite Hf0; exact EF) ER Hq).
    unfold zsub_s. destruct op; rewrite !Hb0, !(zholds_slot st x f f0 H0 E0); reflexivity.
  - (* union / intsec / diff *)
    destruct P as [f0 [g0 [F0 [G0 [E0 [E1 [EF [EG [r [R [Er [ER Hq]]]]]]]]]]]].
    destruct (Fop x f0 E0) as [O0 [Hb0 [Hf0 _]]]. destruct (Fop y g0 E1) as [O1 [Hb1 [Hf1 _]]].
    exists r. split; [exact Er|]. intros a.
    rewrite (fam_bin_bfun _ B' op f0 g0 r F0 G0 R a O0 O1 (zslot_ok C cget st' d r I' Er)
               ltac:(rewrite Hf0; exact EF) ltac:(rewrite Hf1; exact EG) ER Hq).
    unfold zop_s. rewrite Hb0, Hb1, (zholds_slot st x f f0 H0 E0 a), (zholds_slot st y g g0 H1 E1 a). reflexivity.
  - (* make_node *)
    destruct P as (rv & rh & rl & Fv & L & A & Bf & Ev & Eh & El & EFv & HqL & EA & EB & r & R & Er & ER & Hq).
    destruct (Fop hi rh Eh) as [Oh [Hbh [Hfh [Hn Hv]]]]. destruct (Fop lo rl El) as [Ol [Hbl [Hfl _]]].
    destruct (v2l_some _ v H H0) as [L' EL'].
    pose proof (zslot_ok C cget st var rv I Ev) as Ov.
    destruct (singleton_fun_fam _ rv v L' B Ov EL' (zholds_slot st var _ rv H1 Ev)) as [Fv' [EFv' Hq']].
    rewrite EFv in EFv'. inversion EFv'; subst Fv'.
    assert (L = L').
    { assert (Hin : In [L] Fv) by (apply HqL; left; reflexivity). apply Hq' in Hin. simpl in Hin.
      destruct Hin as [Hx|[]]. inversion Hx. reflexivity. }
    subst L'.
    assert (LhS : L < rlevel (hz_s C st') rh).
    { apply (above_rlevel _ rh v L B' Oh ltac:(rewrite Hv; exact EL')).
      intros a u Hu Hl Hau. rewrite Hbh, (zholds_slot st hi h rh H2 Eh).
      apply (H4 a u); [rewrite <- Hn; exact Hu | rewrite <- Hv; exact Hl | exact Hau]. }
    exists r. split; [exact Er|]. intros a.
    rewrite (fam_make_node_bfun _ B' v L rh rl r A Bf R a Oh Ol (zslot_ok C cget st' d r I' Er)
               ltac:(rewrite Hv; exact EL') LhS ltac:(rewrite Hfh; exact EA) ltac:(rewrite Hfl; exact EB) ER Hq).
    unfold mknode_s. rewrite Hbl, !Hbh, (zholds_slot st lo l rl H3 El a), (zholds_slot st hi h rh H2 Eh). reflexivity.
  - destruct P as [Eg [r' Er']]. destruct H0 as [r [Er HF]].
    exists r. assert (Er2 : zslot C st' d = Some r).
    { unfold zslot in *. rewrite Eg. exact Er. }
    split; [exact Er2|]. intros a.
    destruct (Fop x r Er) as [_ [Hb _]]. rewrite Hb. apply HF.
Qed.

(** in one manager the returned edge is THE edge with that function *)
Theorem histz_result_unique : forall st o d F st', HInvZ st -> hspec_z st o d F -> hstep_z st o = Some st' ->
  forall y, zholds st' y F ->
  hget (s_handles (hz_s C st')) y = hget (s_handles (hz_s C st')) d.
Proof.
  intros st o d F st' I S E y Hy.
  destruct (hstep_z_spec st o d F I S) as [st1 [E1 [I1 [_ Hd]]]]. rewrite E in E1. inversion E1; subst st1.
  destruct Hy as [ry [Ey Fy]]. destruct Hd as [rd [Ed Fd]]. unfold zslot in Ey, Ed.
  destruct (hget (s_handles (hz_s C st')) y) as [ey|] eqn:Gy; [|discriminate].
  destruct (hget (s_handles (hz_s C st')) d) as [ed|] eqn:Gd; [|discriminate].
  inversion Ey; subst ry. inversion Ed; subst rd. f_equal.
  apply (hinvz_canonical C cget st' I1 y d ey ed Gy Gd). intros a. rewrite Fy, Fd. reflexivity.
Qed.

End SpecZ.

(** ** Two managers *)

Section TwoZ.
Variables gt1 gt2 : ref -> ref -> bool.
Variables C1 C2 : Type.
Variable cget1 : C1 -> N -> list ref -> list nat -> option ref.
Variable cadd1 : C1 -> N -> list ref -> list nat -> ref -> C1.
Variable cget2 : C2 -> N -> list ref -> list nat -> option ref.
Variable cadd2 : C2 -> N -> list ref -> list nat -> ref -> C2.
Hypothesis L1 : zlossy C1 cget1 cadd1.
Hypothesis L2 : zlossy C2 cget2 cadd2.
Variable ce1 : C1.
Variable ce2 : C2.
Hypothesis He1 : forall k a m, cget1 ce1 k a m = None.
Hypothesis He2 : forall k a m, cget2 ce2 k a m = None.

Notation step1 := (hstep_z gt1 C1 cget1 cadd1 ce1).
Notation step2 := (hstep_z gt2 C2 cget2 cadd2 ce2).

(** the result is determined by the spec function and the variable order:
    same function, same node count, in any two managers *)
Theorem histz_result_determined : forall st1 st2 o1 o2 d1 d2 F st1' st2',
  HInvZ C1 cget1 st1 -> HInvZ C2 cget2 st2 ->
  s_l2v (hz_s C1 st1) = s_l2v (hz_s C2 st2) -> s_v2l (hz_s C1 st1) = s_v2l (hz_s C2 st2) ->
  hspec_z C1 st1 o1 d1 F -> hspec_z C2 st2 o2 d2 F ->
  step1 st1 o1 = Some st1' -> step2 st2 o2 = Some st2' ->
  exists r1 r2, zslot C1 st1' d1 = Some r1 /\ zslot C2 st2' d2 = Some r2 /\
    (forall a, zbfun_of (hz_s C1 st1') r1 a = F a) /\
    (forall a, zbfun_of (hz_s C2 st2') r2 a = F a) /\
    count_reach (hz_s C1 st1') (E r1) = count_reach (hz_s C2 st2') (E r2).
Proof.
  intros st1 st2 o1 o2 d1 d2 F st1' st2' I1 I2 Hl Hv S1 S2 E1 E2.
  destruct (hstep_z_spec gt1 C1 cget1 cadd1 L1 ce1 He1 st1 o1 d1 F I1 S1) as [sa [Ea [Ia [Fa Ha]]]].
  destruct (hstep_z_spec gt2 C2 cget2 cadd2 L2 ce2 He2 st2 o2 d2 F I2 S2) as [sb [Eb [Ib [Fb Hb]]]].
  rewrite E1 in Ea. inversion Ea; subst sa. rewrite E2 in Eb. inversion Eb; subst sb.
  destruct Ha as [r1 [Er1 F1]]. destruct Hb as [r2 [Er2 F2]].
  exists r1, r2. split; [exact Er1|]. split; [exact Er2|]. split; [exact F1|]. split; [exact F2|].
  destruct (hspec_z_order C1 st1 o1 d1 F S1) as [Hco1 _].
  destruct (hspec_z_order C2 st2 o2 d2 F S2) as [Hco2 _].
  destruct Fa as [_ [_ [_ [Fa4 _]]]]. destruct Fb as [_ [_ [_ [Fb4 _]]]].
  destruct (Fa4 Hco1) as [La Va]. destruct (Fb4 Hco2) as [Lb Vb].
  apply same_fun_same_count_z.
  - apply (hzi_ok C1 cget1 st1' Ia).
  - apply (hzi_ok C2 cget2 st2' Ib).
  - rewrite La, Lb. exact Hl.
  - rewrite Va, Vb. exact Hv.
  - apply (zslot_ok C1 cget1 st1' d1 r1 Ia Er1).
  - apply (zslot_ok C2 cget2 st2' d2 r2 Ib Er2).
  - intros a. rewrite F1, F2. reflexivity.
Qed.

(** C08 "as on a freshly built diagram": [ops1] is any history (reorderings,
    collections, dropped handles, added variables, ...), [ops2] any other one -
    in particular the shortest one that just builds the operands in a fresh
    manager with the same variable order; the same call has the same result *)
Theorem histz_fresh_equiv : forall n1 n2 ops1 ops2 st1 st2 o1 o2 d1 d2 F,
  zhops_pre gt1 C1 cget1 cadd1 ce1 (hinit_z C1 ce1 n1) ops1 ->
  hrun_z gt1 C1 cget1 cadd1 ce1 (hinit_z C1 ce1 n1) ops1 = Some st1 ->
  zhops_pre gt2 C2 cget2 cadd2 ce2 (hinit_z C2 ce2 n2) ops2 ->
  hrun_z gt2 C2 cget2 cadd2 ce2 (hinit_z C2 ce2 n2) ops2 = Some st2 ->
  s_l2v (hz_s C1 st1) = s_l2v (hz_s C2 st2) -> s_v2l (hz_s C1 st1) = s_v2l (hz_s C2 st2) ->
  hspec_z C1 st1 o1 d1 F -> hspec_z C2 st2 o2 d2 F ->
  exists st1' st2' r1 r2,
    step1 st1 o1 = Some st1' /\ step2 st2 o2 = Some st2' /\
    zslot C1 st1' d1 = Some r1 /\ zslot C2 st2' d2 = Some r2 /\
    (forall a, zbfun_of (hz_s C1 st1') r1 a = F a) /\
    (forall a, zbfun_of (hz_s C2 st2') r2 a = F a) /\
    count_reach (hz_s C1 st1') (E r1) = count_reach (hz_s C2 st2') (E r2) /\
    wf_b (hz_s C1 st1') = true /\ wf_b (hz_s C2 st2') = true.
Proof.
  intros n1 n2 ops1 ops2 st1 st2 o1 o2 d1 d2 F P1 R1 P2 R2 Hl Hv S1 S2.
  assert (I1 : HInvZ C1 cget1 st1).
  { apply (hreach_z_inv gt1 C1 cget1 cadd1 L1 ce1 He1 n1). exists ops1. auto. }
  assert (I2 : HInvZ C2 cget2 st2).
  { apply (hreach_z_inv gt2 C2 cget2 cadd2 L2 ce2 He2 n2). exists ops2. auto. }
  destruct (hstep_z_spec gt1 C1 cget1 cadd1 L1 ce1 He1 st1 o1 d1 F I1 S1) as [sa [Ea [Ia _]]].
  destruct (hstep_z_spec gt2 C2 cget2 cadd2 L2 ce2 He2 st2 o2 d2 F I2 S2) as [sb [Eb [Ib _]]].
  destruct (histz_result_determined st1 st2 o1 o2 d1 d2 F sa sb I1 I2 Hl Hv S1 S2 Ea Eb)
    as [r1 [r2 [A1 [A2 [A3 [A4 A5]]]]]].
  exists sa, sb, r1, r2. repeat (split; [assumption|]).
  split; apply wf_b_spec; [apply (zo_wf _ (hzi_ok C1 cget1 sa Ia)) | apply (zo_wf _ (hzi_ok C2 cget2 sb Ib))].
Qed.

End TwoZ.
