(** * Theorems about ALL histories of the ZBDD manager state machine (Mgr/HistoryZ.v)

    For every configuration (operand order [gt], cache implementation
    [C]/[cget]/[cadd] that is [zlossy], its cleared state [cempty]), every
    number [n] of initial variables
    and every history (list of [zhop]) of well-formed requests from the empty
    ZBDD manager [hinit_z n]:

    - [hrun_z_ok], [hreach_z_inv]: the run never gets stuck and every state it
      passes satisfies [HInvZ];
    - [histz_wf]: the table after ANY history passes the checkers [wf_b],
      [zbdd_ok_b] and [zchain_ok_b] (C03);
    - [histz_canonical]: two slots hold the same edge IFF they denote the same
      function of the variables IFF the same family of sets of variables (C01);
    - [histz_frame_slots], [histz_slot_stable], [histz_family_fixed]: a call
      changes neither the edge nor the FAMILY of any slot other than its
      destination - also [add_vars]; the Boolean view of an old edge after
      variables were added is "old function and every new variable false" (C09 /
      C16); [histz_add_vars], [histz_reorder_keeps] (C08);
    - [zhop_pre_b_sound], [hrun_z_checked]: the executable request checker. *)

From Coq Require Import List NArith PArith Bool Arith Lia FMapPositive.
From OxiVerif Require Import DD.Table DD.TableExtra DD.TableProofs DD.Sem DD.Build DD.BuildProofs
  DD.Apply DD.ApplyProofs DD.ApplyEvalProofs DD.ConfigApply DD.CanonZbdd DD.FamSpec DD.FamSpecProofs
  DD.ZbddOps DD.ZbddOpsProofs DD.ZbddSubsetProofs DD.ZbddSoundProofs DD.ZbddVars DD.ZbddVarsProofs
  DD.ZbddBool DD.ZbddBoolProofs DD.ZbddEvalProofs
  DD.ZbddRestrictProofs DD.ZbddRestrictTop DD.ZbddCubeCanon
  DD.ConfigInsert DD.ConfigRun DD.ConfigZbddRun DD.ConfigZbddIndep
  Mgr.SortOrder Mgr.SortOrderProofs Mgr.LevelSwap Mgr.LevelSwapOrder Mgr.LevelSwapZ Mgr.LevelSwapZProofs Mgr.LevelSwapZChain
  Mgr.History Mgr.HistoryBase Mgr.HistoryZ Mgr.HistoryZBase Mgr.HistoryZCache Mgr.HistoryZProofs.
Import ListNotations.

Local Arguments hset : simpl never.
Local Arguments hget : simpl never.
Local Arguments hdel : simpl never.
Local Arguments zbfun_of : simpl never.
Local Arguments fam_of : simpl never.
Local Arguments zadd_vars : simpl never.
Local Arguments set_var_order_model_z : simpl never.
Local Arguments gc_model : simpl never.
Local Arguments zcube_lits : simpl never.

(** ** The empty manager *)

Lemma emptyz_wf : forall n, WF (empty_snap_z n).
Proof. intros n. apply empty_wf_gen; repeat constructor; simpl; intuition discriminate. Qed.

Lemma emptyz_ok : forall n, ZbddOK (empty_snap_z n).
Proof.
  intros n. constructor.
  - apply emptyz_wf.
  - reflexivity.
  - intros t v. unfold term_val. cbn [s_terms empty_snap_z assoc_N].
    destruct (N.eqb 0 t); [intros E; inversion E; subst; auto|].
    destruct (N.eqb 1 t); [intros E; inversion E; subst; auto | discriminate].
  - exists 0%N. reflexivity.
  - exists 1%N. reflexivity.
Qed.

Lemma zchain_rebuild_chain : forall s, ZbddOK s ->
  ZbddOK (zchain_rebuild s) /\ ZChainOK (zchain_rebuild s) /\ extends s (zchain_rebuild s).
Proof.
  intros s B. destruct (zchain_after_taut_chain s B) as (s' & ch & E & B' & X & Hc & _).
  unfold zchain_rebuild. rewrite E. auto.
Qed.

Section ThmsZ.
Variable gt : ref -> ref -> bool.
Variable C : Type.
Variable cget : C -> N -> list ref -> list nat -> option ref.
Variable cadd : C -> N -> list ref -> list nat -> ref -> C.
Hypothesis Hlossy : zlossy C cget cadd.
Variable cempty : C.
Hypothesis Hempty : forall k a m, cget cempty k a m = None.

Notation hstate_z := (hstate_z C).
Notation hstep_z := (hstep_z gt C cget cadd cempty).
Notation hrun_z := (hrun_z gt C cget cadd cempty).
Notation HInvZ := (HInvZ C cget).
Notation zhop_pre := (zhop_pre C).
Notation hframe_z := (hframe_z C).
Notation hpost_z := (hpost_z C).
Notation zholds := (zholds C).
Notation zroot := (zroot C).
Notation hinit_z := (hinit_z C cempty).
Notation step_ok := (hstep_z_ok gt C cget cadd Hlossy cempty Hempty).

(** the invariant, spelled out *)
Theorem hinvz_unfold : forall st : hstate_z,
  HInvZ st <->
  (ZbddOK (hz_s C st) /\ ZChainOK (hz_s C st) /\
   ZCacheOKB C cget (hz_s C st) (hz_c C st) /\
   znofuture C cget (nlevels (hz_s C st)) (hz_c C st)).
Proof.
  intros st. split.
  - intros [A B D F]. auto.
  - intros [A [B [D F]]]. constructor; assumption.
Qed.

Theorem hinit_z_inv : forall n, HInvZ (hinit_z n).
Proof.
  intros n. destruct (zchain_rebuild_chain _ (emptyz_ok n)) as [B [Hc _]].
  constructor; simpl; [exact B | exact Hc | apply (zokb_empty C cget cempty Hempty) | apply (nofut_empty C cget cempty Hempty)].
Qed.

(** ** Runs *)

(** every request is well-formed when it is its turn *)
Fixpoint zhops_pre (st : hstate_z) (ops : list zhop) : Prop :=
  match ops with
  | [] => True
  | o :: rest => zhop_pre st o /\ forall st1, hstep_z st o = Some st1 -> zhops_pre st1 rest
  end.

Lemma hstep_z_inv : forall st o, HInvZ st -> zhop_pre st o -> exists st', hstep_z st o = Some st' /\ HInvZ st'.
Proof. intros st o I0 P. destruct (step_ok st o I0 P) as [st' [E [I' _]]]. exists st'. auto. Qed.

Theorem hrun_z_ok : forall ops st, HInvZ st -> zhops_pre st ops ->
  exists st', hrun_z st ops = Some st' /\ HInvZ st'.
Proof. exact (run_ok _ _ hstep_z HInvZ zhop_pre hstep_z_inv). Qed.

(** the states a client can bring a ZBDD manager with [n] initial variables into *)
Definition hreach_z (n : nat) (st : hstate_z) : Prop :=
  exists ops, zhops_pre (hinit_z n) ops /\ hrun_z (hinit_z n) ops = Some st.

Theorem hreach_z_init : forall n, hreach_z n (hinit_z n).
Proof. intros n. exists []. split; [exact I | reflexivity]. Qed.

Theorem hreach_z_inv : forall n st, hreach_z n st -> HInvZ st.
Proof. intros n st. exact (reach_inv _ _ hstep_z HInvZ zhop_pre hstep_z_inv (hinit_z n) st (hinit_z_inv n)). Qed.

Theorem hreach_z_step : forall n st o st', hreach_z n st -> zhop_pre st o -> hstep_z st o = Some st' ->
  hreach_z n st'.
Proof. intros n. exact (reach_step _ _ hstep_z zhop_pre (hinit_z n)). Qed.

(** (1) no well-formed request ever gets stuck, from any reachable state *)
Theorem histz_progress : forall n st o, hreach_z n st -> zhop_pre st o ->
  exists st', hstep_z st o = Some st' /\ hreach_z n st' /\ hframe_z st o st' /\ hpost_z st o st'.
Proof.
  intros n st o R Pre. destruct (step_ok st o (hreach_z_inv n st R) Pre) as [st' [E [_ [F P]]]].
  exists st'. split; [exact E|]. split; [apply (hreach_z_step n st o st' R Pre E)|]. auto.
Qed.

(** (1) C03: after any history the table passes the structural checkers, and the
    manager's tautology chain is complete *)
Theorem histz_wf : forall n st, hreach_z n st ->
  wf_b (hz_s C st) = true /\ zbdd_ok_b (hz_s C st) = true /\ zchain_ok_b (hz_s C st) = true.
Proof.
  intros n st R. pose proof (hreach_z_inv n st R) as I. pose proof (hzi_ok C cget st I) as B.
  split; [apply wf_b_spec; apply (zo_wf _ B)|]. split; [apply zbdd_ok_b_spec; exact B|].
  apply (hzi_chain C cget st I).
Qed.

(** ** Canonicity *)

Theorem hinvz_canonical : forall st, HInvZ st ->
  forall x y ex ey, hget (s_handles (hz_s C st)) x = Some ex -> hget (s_handles (hz_s C st)) y = Some ey ->
  (ex = ey <-> forall a, zbfun_of (hz_s C st) (eref ex) a = zbfun_of (hz_s C st) (eref ey) a).
Proof.
  intros st I x y ex ey Ex Ey. pose proof (hzi_ok C cget st I) as B.
  destruct (z_handle_ok _ (x, ex) B (hget_In _ _ _ Ex)) as [Ox Tx].
  destruct (z_handle_ok _ (y, ey) B (hget_In _ _ _ Ey)) as [Oy Ty]. simpl in *.
  split; [intros ->; reflexivity|]. intros Heq.
  apply edge_ext; [|congruence]. apply (zbfun_canon _ _ _ B Ox Oy Heq).
Qed.

(** the same with families of sets of variables *)
Theorem hinvz_canonical_fam : forall st, HInvZ st ->
  forall x y ex ey, hget (s_handles (hz_s C st)) x = Some ex -> hget (s_handles (hz_s C st)) y = Some ey ->
  (ex = ey <-> forall a, vmem (hz_s C st) (eref ex) a <-> vmem (hz_s C st) (eref ey) a).
Proof.
  intros st I x y ex ey Ex Ey. split; [intros ->; reflexivity|]. intros Heq.
  apply (hinvz_canonical st I x y ex ey Ex Ey). intros a.
  pose proof (zo_wf _ (hzi_ok C cget st I)) as H.
  (* restrict [a] to the manager's variables: the functions do not read the others *)
  set (a' := fun v => if Nat.ltb v (nlevels (hz_s C st)) then a v else false).
  assert (Hag : forall v, v < nlevels (hz_s C st) -> a v = a' v).
  { intros v Hv. unfold a'. destruct (Nat.ltb_spec v (nlevels (hz_s C st))); [reflexivity | lia]. }
  rewrite (zbfun_of_local _ (eref ex) a a' H Hag), (zbfun_of_local _ (eref ey) a a' H Hag).
  assert (Hs : supp (nlevels (hz_s C st)) a').
  { intros v Hv. unfold a'. destruct (Nat.ltb_spec v (nlevels (hz_s C st))); [lia | reflexivity]. }
  specialize (Heq a'). unfold vmem in Heq.
  destruct (zbfun_of (hz_s C st) (eref ex) a') eqn:E1, (zbfun_of (hz_s C st) (eref ey) a') eqn:E2; try reflexivity.
  - destruct (proj1 Heq (conj Hs eq_refl)) as [_ Hx]. discriminate.
  - destruct (proj2 Heq (conj Hs eq_refl)) as [_ Hx]. discriminate.
Qed.

(** (2) C01: after any history, two slots hold the same edge iff they denote
    the same function of the manager's variables *)
Theorem histz_canonical : forall n st, hreach_z n st ->
  forall x y ex ey, hget (s_handles (hz_s C st)) x = Some ex -> hget (s_handles (hz_s C st)) y = Some ey ->
  (ex = ey <-> forall a, zbfun_of (hz_s C st) (eref ex) a = zbfun_of (hz_s C st) (eref ey) a).
Proof. intros n st R. apply hinvz_canonical. apply (hreach_z_inv n st R). Qed.

Theorem histz_canonical_fam : forall n st, hreach_z n st ->
  forall x y ex ey, hget (s_handles (hz_s C st)) x = Some ex -> hget (s_handles (hz_s C st)) y = Some ey ->
  (ex = ey <-> forall a, vmem (hz_s C st) (eref ex) a <-> vmem (hz_s C st) (eref ey) a).
Proof. intros n st R. apply hinvz_canonical_fam. apply (hreach_z_inv n st R). Qed.

(** ** The frame, slot by slot *)

(** (3) a call changes neither the edge nor the family of any slot other than
    its destination; the Boolean view gains "new variables false" *)
Theorem histz_frame_slots : forall st o st', HInvZ st -> zhop_pre st o -> hstep_z st o = Some st' ->
  forall x e, zhdst o <> Some x -> hget (s_handles (hz_s C st)) x = Some e ->
  hget (s_handles (hz_s C st')) x = Some e /\
  ref_ok (hz_s C st') (eref e) /\
  nlevels (hz_s C st) <= nlevels (hz_s C st') /\
  (forall a, vmem (hz_s C st') (eref e) a <-> vmem (hz_s C st) (eref e) a) /\
  forall a, zbfun_of (hz_s C st') (eref e) a =
            zbfun_of (hz_s C st) (eref e) a && newfalse (nlevels (hz_s C st)) (nlevels (hz_s C st')) a.
Proof.
  intros st o st' I Pre E x e Hx Eg. destruct (step_ok st o I Pre) as [st1 [E1 [_ [Fr _]]]].
  rewrite E in E1. inversion E1; subst st1.
  assert (Hr : zroot st (eref e)) by (exists (x, e); split; [apply hget_In; exact Eg | reflexivity]).
  pose proof (hframe_z_family C st o st' Fr (eref e) Hr) as Hfam.
  destruct Fr as [F1 [F2 [F3 _]]].
  split; [rewrite (F1 x Hx); exact Eg|]. destruct (F2 _ Hr) as [O Hb].
  split; [exact O|]. split; [exact F3|]. split; [exact Hfam | exact Hb].
Qed.

(** (3) along a whole history: as long as no call names slot [x] as its
    destination, the slot keeps its edge, the edge keeps its family of sets of
    variables - through operations, collections, reorderings, added variables,
    with any cache behaviour - and its Boolean view is the old one on the old
    variables and false as soon as a variable added meanwhile is true *)
Theorem histz_slot_stable : forall ops st st', HInvZ st -> zhops_pre st ops -> hrun_z st ops = Some st' ->
  forall x e, (forall o, In o ops -> zhdst o <> Some x) ->
  hget (s_handles (hz_s C st)) x = Some e ->
  hget (s_handles (hz_s C st')) x = Some e /\
  ref_ok (hz_s C st') (eref e) /\
  nlevels (hz_s C st) <= nlevels (hz_s C st') /\
  (forall a, vmem (hz_s C st') (eref e) a <-> vmem (hz_s C st) (eref e) a) /\
  forall a, zbfun_of (hz_s C st') (eref e) a =
            zbfun_of (hz_s C st) (eref e) a && newfalse (nlevels (hz_s C st)) (nlevels (hz_s C st')) a.
Proof.
  induction ops as [|o rest IH]; intros st st' I Pre E x e Hx Eg.
  - simpl in E. inversion E; subst st'. split; [exact Eg|].
    split; [apply (z_handle_ok _ (x, e) (hzi_ok C cget st I) (hget_In _ _ _ Eg))|].
    split; [apply le_n|]. split; [reflexivity|]. intros a. rewrite newfalse_same, andb_true_r. reflexivity.
  - destruct Pre as [P0 Prest]. simpl in E.
    destruct (step_ok st o I P0) as [st1 [E1 [I1 _]]]. rewrite E1 in E.
    destruct (histz_frame_slots st o st1 I P0 E1 x e (Hx o (or_introl eq_refl)) Eg) as [G1 [_ [N1 [V1 F1]]]].
    destruct (IH st1 st' I1 (Prest st1 E1) E x e (fun o' Ho => Hx o' (or_intror Ho)) G1) as [G2 [O2 [N2 [V2 F2]]]].
    split; [exact G2|]. split; [exact O2|]. split; [lia|]. split.
    + intros a. rewrite V2. apply V1.
    + intros a. rewrite F2, F1, <- andb_assoc. f_equal. apply newfalse_trans; assumption.
Qed.

(** (3) C09 / C16 along a whole history, in the vocabulary of families: the
    untouched handle denotes the same family of sets of variables, given by
    level lists of the respective orders *)
Theorem histz_family_fixed : forall ops st st', HInvZ st -> zhops_pre st ops -> hrun_z st ops = Some st' ->
  forall x e, (forall o, In o ops -> zhdst o <> Some x) ->
  hget (s_handles (hz_s C st)) x = Some e ->
  hget (s_handles (hz_s C st')) x = Some e /\
  exists F F', fam_of (hz_s C st) (eref e) = Some F /\ fam_of (hz_s C st') (eref e) = Some F' /\
    forall a, supp (nlevels (hz_s C st')) a ->
      (In (set_levels (hz_s C st') a) F' <-> supp (nlevels (hz_s C st)) a /\ In (set_levels (hz_s C st) a) F).
Proof.
  intros ops st st' I Pre E x e Hx Eg.
  destruct (hrun_z_ok ops st I Pre) as [st2 [E2 I2]]. rewrite E in E2. inversion E2; subst st2.
  destruct (histz_slot_stable ops st st' I Pre E x e Hx Eg) as [G [O' [_ [V _]]]].
  split; [exact G|].
  pose proof (hzi_ok C cget st I) as B. pose proof (hzi_ok C cget st' I2) as B'.
  pose proof (z_handle_ok _ (x, e) B (hget_In _ _ _ Eg)) as [O _]. simpl in O.
  destruct (fam_of_total _ (zo_wf _ B) (zo_kind _ B) _ O) as [F EF].
  destruct (fam_of_total _ (zo_wf _ B') (zo_kind _ B') _ O') as [F' EF'].
  exists F, F'. split; [exact EF|]. split; [exact EF'|]. intros a Hs.
  rewrite <- (vmem_fam _ _ F a B O EF), <- (V a), (vmem_fam _ _ F' a B' O' EF'). tauto.
Qed.

(** (3) C16: [add_vars] keeps every slot, every node and every FAMILY of the
    old table (as the same list of level sets); the Boolean view of an old
    reference is the old one and "all new variables false"; the chain is complete *)
Theorem histz_add_vars : forall st k st', HInvZ st -> hstep_z st (ZHAddVars k) = Some st' ->
  HInvZ st' /\
  nlevels (hz_s C st') = nlevels (hz_s C st) + k /\
  s_handles (hz_s C st') = s_handles (hz_s C st) /\
  (forall id nd, find_node (hz_s C st) id = Some nd -> find_node (hz_s C st') id = Some nd) /\
  (forall v, v < nlevels (hz_s C st) -> nth_error (s_v2l (hz_s C st')) v = nth_error (s_v2l (hz_s C st)) v) /\
  (forall i, i < k -> nth_error (s_v2l (hz_s C st')) (nlevels (hz_s C st) + i) = Some (nlevels (hz_s C st) + i)) /\
  forall r, ref_ok (hz_s C st) r ->
    ref_ok (hz_s C st') r /\ fam_of (hz_s C st') r = fam_of (hz_s C st) r /\
    (forall a, vmem (hz_s C st') r a <-> vmem (hz_s C st) r a) /\
    forall a, zbfun_of (hz_s C st') r a =
              zbfun_of (hz_s C st) r a && newfalse (nlevels (hz_s C st)) (nlevels (hz_s C st')) a.
Proof.
  intros st k st' I E. pose proof (hzi_ok C cget st I) as B. pose proof (zo_wf _ B) as H.
  destruct (step_ok st (ZHAddVars k) I Logic.I) as [st1 [E1 [I1 _]]].
  rewrite E in E1. inversion E1; subst st1. split; [exact I1|].
  simpl in E. destruct (zadd_vars_facts _ k B) as (s' & ch & E0 & B' & Hc' & G & Hn & Hv2l & Hl2v & Hh & Hold).
  rewrite E0 in E. inversion E; subst st'. simpl.
  assert (Lv : length (s_v2l (hz_s C st)) = nlevels (hz_s C st)) by (apply (wf_perm_len _ H)).
  split; [exact Hn|]. split; [exact Hh|]. split; [apply (gr_nodes _ _ G)|]. split; [|split].
  - intros v Hv. rewrite Hv2l. apply nth_error_app1. lia.
  - intros i Hi. rewrite Hv2l. rewrite (nth_error_app_seq _ _ k _ Lv).
    destruct (Nat.ltb_spec (nlevels (hz_s C st) + i) (nlevels (hz_s C st))); [lia|].
    destruct (Nat.ltb_spec (nlevels (hz_s C st) + i) (nlevels (hz_s C st) + k)); [reflexivity | lia].
  - intros r Ok. destruct (Hold r Ok) as [O' [Ef Hb]]. split; [exact O'|]. split; [exact Ef|].
    split; [|exact Hb]. apply vmem_stable; [lia | exact Hb].
Qed.

(** (3) C08: [set_var_order] changes no slot, no function of the variables, no
    family, and establishes the requested relative order; the chain is complete again *)
Theorem histz_reorder_keeps : forall st order st', HInvZ st ->
  zhop_pre st (ZHSetVarOrder order) -> hstep_z st (ZHSetVarOrder order) = Some st' ->
  HInvZ st' /\
  nlevels (hz_s C st') = nlevels (hz_s C st) /\
  s_handles (hz_s C st') = s_handles (hz_s C st) /\
  (forall x e, hget (s_handles (hz_s C st)) x = Some e ->
     ref_ok (hz_s C st') (eref e) /\
     (forall a, zbfun_of (hz_s C st') (eref e) a = zbfun_of (hz_s C st) (eref e) a) /\
     (forall a, vmem (hz_s C st') (eref e) a <-> vmem (hz_s C st) (eref e) a)) /\
  (forall a b, a < b < length order ->
     nth (nth a order 0) (s_v2l (hz_s C st')) 0 < nth (nth b order 0) (s_v2l (hz_s C st')) 0).
Proof.
  intros st order st' I Pre E. destruct (step_ok st _ I Pre) as [st1 [E1 [I1 [Fr P]]]].
  rewrite E in E1. inversion E1; subst st1. simpl in P. destruct P as [P1 [P2 P3]].
  split; [exact I1|]. split; [exact P1|]. split; [exact P2|]. split; [|exact P3].
  intros x e Eg.
  assert (Hr : zroot st (eref e)) by (exists (x, e); split; [apply hget_In; exact Eg | reflexivity]).
  pose proof (hframe_z_family C st _ st' Fr (eref e) Hr) as Hfam.
  destruct Fr as [_ [F2 _]]. destruct (F2 _ Hr) as [O Hb]. split; [exact O|]. split; [|exact Hfam].
  intros a. rewrite Hb, P1, newfalse_same, andb_true_r. reflexivity.
Qed.

(** ** The request checker *)

Lemma zoccupied_b_spec : forall st k, zoccupied_b C st k = true <-> zoccupied C st k.
Proof.
  intros st k. unfold zoccupied_b, zoccupied. destruct (zslot C st k) as [r|].
  - split; [eauto | reflexivity].
  - split; [discriminate | intros [r E]; discriminate].
Qed.

Lemma is_term_with_val : forall s r v, is_term_with s r v = true -> exists t, r = RT t /\ term_val s t = Some v.
Proof.
  intros s [t|id] v E; simpl in E; [|discriminate].
  destruct (term_val s t) as [w|] eqn:Et; [|discriminate]. apply N.eqb_eq in E. subst. eauto.
Qed.

Theorem zhop_pre_b_sound : forall st o, HInvZ st -> zhop_pre_b C st o = true -> zhop_pre st o.
Proof.
  intros st o I. pose proof (hzi_ok C cget st I) as B. pose proof (zo_wf _ B) as H.
  destruct o; simpl; try (intros _; exact Logic.I);
    try (intros Hb; repeat (apply andb_true_iff in Hb; destruct Hb as [Hb ?]);
         repeat split; first [apply zoccupied_b_spec | apply Nat.ltb_lt]; assumption).
  - (* ZHRestrict *)
    intros Hb. apply andb_true_iff in Hb. destruct Hb as [A Hb]. split; [apply zoccupied_b_spec; exact A|].
    destruct (zslot C st cube) as [vs|] eqn:Ev; [|discriminate Hb].
    destruct (zcube_lits (S (nlevels (hz_s C st))) (hz_s C st) vs 0) as [lits|] eqn:El; [|discriminate Hb].
    destruct (zcube_lits_cube _ B _ vs 0 lits El ltac:(lia)) as (_ & _ & Hc).
    exists vs, (lits_map lits). auto.
  - (* ZHMakeNode *)
    destruct (zslot C st var) as [v|] eqn:Ev; [|discriminate].
    destruct (zslot C st hi) as [h|] eqn:Eh; [|discriminate].
    destruct (zslot C st lo) as [l|] eqn:El; [|discriminate].
    unfold zsingleton_above_b. destruct v as [t|id]; [discriminate|].
    destruct (find_node (hz_s C st) id) as [nd|] eqn:En; [|discriminate].
    destruct (nchildren nd) as [|chi [|clo [|x rest]]] eqn:Ec; try discriminate.
    rewrite !andb_true_iff, !Nat.ltb_lt. intros [[[T1 T0] L1] L2].
    destruct (is_term_with_val _ _ _ T1) as [t1 [E1 V1]]. destruct (is_term_with_val _ _ _ T0) as [t0 [E0 V0]].
    pose proof (fam_of_node _ H (zo_kind _ B) id nd chi clo En Ec) as EF.
    rewrite E1, E0, (fam_of_term _ t1 1%N V1), (fam_of_term _ t0 0%N V0) in EF. simpl in EF.
    exists (RN id), h, l, (node_fam (nlevel nd) f_base f_empty), (nlevel nd).
    repeat (split; [first [reflexivity | assumption]|]).
    split; [|split; assumption].
    intros S. rewrite in_node_fam, in_f_singleton. unfold f_base, f_empty. simpl. split.
    + intros [[T [-> [<-|[]]]]|[]]. reflexivity.
    + intros ->. left. exists []. auto.
  - (* ZHSetVarOrder *)
    rewrite SortOrderProofs.order_ok_b_valid. unfold SortOrderProofs.valid_order. tauto.
Qed.

Theorem zhops_pre_b_sound : forall ops st, HInvZ st ->
  zhops_pre_b gt C cget cadd cempty st ops = true -> zhops_pre st ops.
Proof.
  exact (pres_b_sound _ _ hstep_z HInvZ zhop_pre (zhop_pre_b C)
           (step_inv_keeps _ _ hstep_z HInvZ zhop_pre hstep_z_inv) zhop_pre_b_sound).
Qed.

(** a history accepted by the checker runs to completion, in a reachable state *)
Theorem hrun_z_checked : forall n ops, zhops_pre_b gt C cget cadd cempty (hinit_z n) ops = true ->
  exists st, hrun_z (hinit_z n) ops = Some st /\ hreach_z n st.
Proof.
  intros n ops Hb.
  exact (run_reach _ _ hstep_z HInvZ zhop_pre hstep_z_inv (hinit_z n) ops (hinit_z_inv n)
           (zhops_pre_b_sound ops _ (hinit_z_inv n) Hb)).
Qed.

End ThmsZ.
