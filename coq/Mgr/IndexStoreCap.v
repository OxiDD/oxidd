(** * STOREREF — a script with at most as many additions as free slots never meets OutOfMemory
      (one thread, nothing parked with other threads): the hypothesis "without OutOfMemory" of
      [stores_equivalent] is implied by a count of the script. *)

From Coq Require Import List NArith ZArith PArith Bool Arith Lia FMapPositive.
From OxiVerif Require Import Mgr.Alloc Mgr.AllocBase Mgr.AllocInv Mgr.AllocStep Mgr.AllocProofs
  Tbl.RcStore Mgr.IndexStore Mgr.IndexStoreProofs Mgr.IndexStoreEquiv.
From OxiVerif Require Tbl.ArcSlab Tbl.ArcSlabRefine.
Import ListNotations.
Local Open Scope N_scope.

Fixpoint nadds (ops : list aop) : nat :=
  match ops with
  | [] => 0
  | AAdd _ _ :: r => S (nadds r)
  | _ :: r => nadds r
  end.

Lemma free_nlive c s t id s' o : AllocInv.AInv c s -> step c good s (AFree t id) = Some (s', o) ->
  nlive c s = S (nlive c s').
Proof.
  intros (fs & ls & I) H. destruct (free_shape _ _ _ _ _ _ H) as (Hn & nx & Esl).
  unfold nlive, live_slots. rewrite Esl. apply nlive_unset_node; [|exact Hn | discriminate].
  apply (w_nodes _ _ _ _ I). exact Hn.
Qed.

Lemma release1_al s h s' lk : release1 s h = Some (s', lk) -> i_al s' = i_al s.
Proof. intros H. destruct (release1_spec _ _ _ _ H) as (id & p & rc & _ & _ & -> & _). reflexivity. Qed.

(** the allocator part of one operation of the `Arc` client *)
Lemma arc_step_alloc c t s o s' x :
  XInv c t s -> others_idle_p c (i_al s) t -> arc_step c t s o = (s', x) -> x <> XOom ->
  others_idle_p c (i_al s') t /\
  (nlive c (i_al s') <= nlive c (i_al s) + match o with AAdd _ _ => 1 | _ => 0 end)%nat.
Proof.
  intros (HI & Hown & Ht) Ho H Hx. pose proof HI as (HA & _).
  assert (Hsame : others_idle_p c (i_al s) t /\ (nlive c (i_al s) <= nlive c (i_al s) + match o with AAdd _ _ => 1 | _ => 0 end)%nat)
    by (split; [exact Ho | lia]).
  destruct o as [h p|h h2|h|h]; cbn [arc_step] in H.
  - (* AAdd *)
    destruct (istep c s (IAdd t h (fresh_h h (i_hs s)) p [])) as [[s1 r]|] eqn:E; [|injection H as <- <-; exact Hsame].
    destruct r; try (injection H as <- <-; exact Hsame); [|injection H as <- <-; congruence].
    destruct (istep_add_parts _ _ _ _ _ _ _ _ _ E) as (_ & al' & oid & pa0 & Hal & Hres).
    destruct oid as [id0|]; [|destruct Hres as (? & _ & ?); discriminate]. destruct Hres as [-> _].
    destruct (istep c _ (IRelease (fresh_h h (i_hs s)))) as [[s2 r2]|] eqn:E2; [|injection H as <- <-; exact Hsame].
    destruct r2 as [| | |[|]| | | |]; try (injection H as <- <-; exact Hsame). injection H as <- <-.
    assert (Eal : i_al s2 = al').
    { cbn [istep] in E2. destruct (client_h _ _); [|discriminate].
      destruct (release1 _ _) as [[s3 lk]|] eqn:E3; [|discriminate]. injection E2 as <-.
      apply release1_al in E3. exact E3. }
    rewrite Eal. split.
    + intros u l0 Hu Hl0. simpl in Hal. destruct (nth_error (th (i_al s)) t) as [l|] eqn:El; [|discriminate].
      rewrite (add_node_others _ _ _ _ _ _ u Hal Hu) in Hl0. eapply Ho; eauto.
    + rewrite (alloc_nlive _ _ _ _ _ _ HA Hal). lia.
  - (* AClone *)
    destruct (istep c s (IRetain h h2)) as [[s1 r]|] eqn:E; [|injection H as <- <-; exact Hsame].
    destruct r; try (injection H as <- <-; exact Hsame). injection H as <- <-.
    cbn [istep] in E. destruct (afind h (i_hs s)); [|discriminate]. destruct (afind h2 (i_hs s)); [discriminate|].
    destruct (nget (i_nodes s) n) as [[? ?]|]; [|discriminate]. inversion E; subst. exact Hsame.
  - (* AEnd *)
    destruct (istep c s (IGet h)) as [[s0 r0]|]; [|injection H as <- <-; exact Hsame].
    destruct r0 as [? ?|?|?|?|? ? ?|?|pv rc0|?]; try (injection H as <- <-; exact Hsame).
    destruct (rc0 =? 1).
    + destruct (istep c s (IRemove t h)) as [[s1 r]|] eqn:E; [|injection H as <- <-; exact Hsame].
      destruct r as [| | | |p0 kids [|]| | |]; try (injection H as <- <-; exact Hsame). injection H as <- <-.
      cbn [istep] in E. destruct (client_h s h); [|discriminate].
      destruct (afind h (i_hs s)) as [id|]; [|discriminate].
      destruct (nget (i_nodes s) id) as [[p1 rc1]|]; [|discriminate].
      destruct (rc1 =? 1); [|discriminate].
      destruct (release_all _ (kids_of id (i_own s))) as [[s2 lk]|] eqn:Erel; [|discriminate].
      destruct (step c good (i_al s2) (AFree t id)) as [[al' ob]|] eqn:Hfree; [|discriminate].
      inversion E; subst s1 p0 kids lk. cbn [i_al].
      destruct (release_all_spec _ _ _ Erel) as (_ & Ea & _). cbn [i_al] in Ea. rewrite Ea in Hfree. split.
      * intros u l0 Hu Hl0. rewrite (proj2 (free_threads _ _ _ _ _ _ Hfree) u Hu) in Hl0. eapply Ho; eauto.
      * rewrite (free_nlive _ _ _ _ _ _ HA Hfree). lia.
    + destruct (istep c s (IRelease h)) as [[s1 r]|] eqn:E; [|injection H as <- <-; exact Hsame].
      destruct r as [| | |[|]| | | |]; try (injection H as <- <-; exact Hsame). injection H as <- <-.
      cbn [istep] in E. destruct (client_h s h); [|discriminate].
      destruct (release1 s h) as [[s3 lk]|] eqn:E3; [|discriminate]. injection E as <-.
      rewrite (release1_al _ _ _ _ E3). exact Hsame.
  - (* AGet *)
    destruct (istep c s (IGet h)) as [[s0 r0]|]; [|injection H as <- <-; exact Hsame].
    destruct r0; injection H as <- <-; exact Hsame.
Qed.

Theorem idx_exec_no_oom c t ops : forall s,
  XInv c t s -> others_idle_p c (i_al s) t ->
  (nlive c (i_al s) + nadds ops <= N.to_nat (cap c))%nat ->
  ~ In XOom (idx_exec c t s ops).
Proof.
  induction ops as [|o ops IH]; intros s HX Ho Hn; cbn [idx_exec]; [intros []|].
  destruct (arc_step c t s o) as [s1 x] eqn:E.
  pose proof (arc_step_spec c t s o HX) as Hspec. rewrite E in Hspec.
  assert (Hx : x <> XOom).
  { (* OutOfMemory would mean a full store *)
    intros ->. pose proof HX as (HI & Hown & Ht).
    destruct (nth_error (th (i_al s)) t) as [l|] eqn:El; [|apply nth_error_None in El; lia].
    destruct Hspec as (h & p & lk & -> & Hst).
    assert (Hfull : nlive c (i_al s) = N.to_nat (cap c)).
    { apply (proj1 (iadd_oom_single _ _ _ _ _ _ _ _ _ _ HI El Ho Hst)). eauto. }
    cbn [nadds] in Hn. lia. }
  cbn [In]. intros [Ex|Hin]; [congruence|].
  destruct (arc_step_alloc c t s o s1 x HX Ho E Hx) as [Ho1 Hn1].
  assert (HX1 : XInv c t s1).
  { destruct x; [apply Hspec | destruct Hspec as [-> _]; exact HX | congruence | contradiction]. }
  apply (IH s1 HX1 Ho1); [|exact Hin]. destruct o; cbn [nadds] in Hn; lia.
Qed.

(** all three stores, with a hypothesis that can be read off the script: a new manager with one
    thread, at most [cap c] additions *)
Theorem stores_equivalent_new c spp ops :
  1 <= chunk c -> 1 <= term c -> (1 <= spp)%nat ->
  forallb ArcSlabRefine.item_op ops = true ->
  (nadds (map ArcSlabRefine.aop_of ops) <= N.to_nat (cap c))%nat ->
  idx_exec c 0 (iinit c 1) (map ArcSlabRefine.aop_of ops) =
    map lift (ArcSlabRefine.arc_exec spp (ArcSlab.init spp) ops) /\
  idx_exec c 0 (iinit c 1) (map ArcSlabRefine.aop_of ops) =
    map lift (ArcSlabRefine.ref_exec ArcSlabRefine.rinit (map ArcSlabRefine.aop_of ops)).
Proof.
  intros Hc Ht Hspp Hitem Hn.
  assert (HI : IInv c (iinit c 1)) by (apply iinit_inv; auto).
  apply stores_equivalent; [exact HI | reflexivity | cbn; lia | exact Hspp | exact Hitem |].
  apply idx_exec_no_oom.
  - split; [exact HI|]. split; [reflexivity | cbn; lia].
  - intros u l Hu Hl. cbn in Hl. destruct u as [|u]; [congruence|]. destruct u; discriminate.
  - assert (E : nlive c (i_al (iinit c 1)) = 0%nat); [|rewrite E; exact Hn].
    unfold nlive, live_slots. cbn [iinit i_al init sl]. induction (ids c) as [|x r IHr]; [reflexivity|].
    cbn [filter]. rewrite sget_empty. cbn [is_node]. exact IHr.
Qed.
