(** * STOREREF — the three node stores return the same results

    A client with `Arc` semantics on the index store ([arc_step] of Mgr/IndexStore.v: `add_node`
    + drop of the second edge; the last `drop` removes the node and frees the slot) runs the script
    language of Tbl/RcStore.v.  Each accepted operation is ONE abstract step ([arc_step_spec]);
    with the reference store ([ref_step] of Tbl/ArcSlabRefine.v, ids 0, 1, 2, ... never re-used)
    refining the same abstract store and [astep_id_independent] the results agree for every script
    without OutOfMemory ([index_equiv_reference]); with ARCSLAB's [arcslab_equiv_reference] the
    pointer-based manager's slab returns the same results too ([stores_equivalent]). *)

From Coq Require Import List NArith ZArith PArith Bool Arith Lia FMapPositive.
From OxiVerif Require Import Mgr.Alloc Mgr.AllocBase Mgr.AllocInv Mgr.AllocStep Mgr.AllocProofs
  Tbl.RcStore Mgr.IndexStore Mgr.IndexStoreProofs.
From OxiVerif Require Tbl.ArcSlab Tbl.ArcSlabRefine.
Import ListNotations.
Local Open Scope N_scope.

Arguments N.add : simpl never.
Arguments N.sub : simpl never.

(** ** the allocator keeps its threads *)

Lemma alloc_obs c s t s' o : step c good s (AAlloc t) = Some (s', o) ->
  (exists oid pa, o = OAlloc oid pa) /\ length (th s') = length (th s).
Proof.
  intros H. simpl in H. destruct (nth_error (th s) t) as [l|]; [|discriminate].
  destruct (add_node_frame _ _ _ _ _ _ H) as (r & p & l' & -> & Eth & _).
  split; [eauto | rewrite Eth; apply upd_length].
Qed.

Lemma free_threads c s t id s' o : step c good s (AFree t id) = Some (s', o) ->
  length (th s') = length (th s) /\ forall u, u <> t -> nth_error (th s') u = nth_error (th s) u.
Proof.
  intros H. simpl in H. destruct (nth_error (th s) t) as [l|]; [|discriminate].
  destruct (is_node (sget (sl s) id)); [|discriminate].
  unfold free_slot in H. cbn [v_ho_drift v_no_reset good] in H.
  destruct (is_this (l_cur l)).
  - destruct (- Z.of_N (chunk c) <? l_delta l - 1)%Z; injection H as <- _; cbn [th];
      (split; [apply upd_length | intros u Hu; apply nth_error_upd_other; auto]).
  - destruct (s_free (sh s)); injection H as <- _; auto.
Qed.

Lemma free_enabled c s t id : (t < length (th s))%nat -> sget (sl s) id = SNode ->
  exists s' o, step c good s (AFree t id) = Some (s', o).
Proof.
  intros Ht Hn. simpl. destruct (nth_error (th s) t) as [l|] eqn:E; [|apply nth_error_None in E; lia].
  rewrite Hn. cbn [is_node]. destruct (free_slot c good s t l id). eauto.
Qed.

(** ** a new handle variable *)

Lemma fresh_h_spec h (hs : list (nat * N)) : fresh_h h hs <> h /\ afind (fresh_h h hs) hs = None.
Proof.
  unfold fresh_h.
  assert (Hh : (h <= fold_right (fun e a => Nat.max (fst e) a) h hs)%nat).
  { induction hs as [|e r IH]; cbn [fold_right]; lia. }
  assert (Hk : forall k, In k (map fst hs) -> (k <= fold_right (fun e a => Nat.max (fst e) a) h hs)%nat).
  { induction hs as [|e r IH]; cbn [fold_right map In]; [tauto|]. intros k [E|Hin]; [lia|].
    assert (h <= fold_right (fun e a => Nat.max (fst e) a) h r)%nat by (clear; induction r; cbn [fold_right]; lia).
    specialize (IH H k Hin). lia. }
  split; [lia|]. apply (afind_None N). intros Hin. specialize (Hk _ Hin). lia.
Qed.

Lemma runs_one (s s' : astate N) o r : aruns N N.eqb s [o] [r] s' -> astep N N.eqb s o r s'.
Proof.
  intros R. inversion R as [|? ? ? s1 ? ? ? A R1]; subst. inversion R1; subst. exact A.
Qed.

(** ** one operation of the `Arc` client *)

Definition XInv (c : cfg) (t : nat) (s : istate) : Prop :=
  IInv c s /\ i_own s = [] /\ (t < length (th (i_al s)))%nat.

(** why the client refuses an operation *)
Definition rejects (s : istate) (o : aop) : Prop :=
  match o with
  | AAdd h _ => afind h (i_hs s) <> None
  | AClone h h2 => afind h (i_hs s) = None \/ afind h2 (i_hs s) <> None
  | AEnd h | AGet h => afind h (i_hs s) = None
  end.

Lemma client_h_noown s h : i_own s = [] -> client_h s h = bound (i_hs s) h.
Proof. intros E. unfold client_h. rewrite E. cbn. apply andb_true_r. Qed.

Theorem arc_step_spec c t s o : XInv c t s ->
  match arc_step c t s o with
  | (s', XOk r) => astep N N.eqb (iabs s) o r (iabs s') /\ XInv c t s'
  | (s', XRej) => s' = s /\ rejects s o
  | (s', XOom) => exists h p lk, o = AAdd h p /\ istep c s (IAdd t h (fresh_h h (i_hs s)) p []) = Some (s', IROom lk)
  | (_, XBroken) => False
  end.
Proof.
  intros (HI & Hown & Ht). pose proof HI as (HA & HL & HR & HO).
  assert (Hlive : forall h id, afind h (i_hs s) = Some id -> exists p rc, nget (i_nodes s) id = Some (p, rc) /\ 1 <= rc).
  { intros h id Hf. destruct HR as [_ HC]. specialize (HC id). cbn [iabs a_map a_hs] in HC.
    assert (Hp : (1 <= acount N N.eqb id (i_hs s))%nat) by (apply (acount_pos N N.eqb N.eqb_eq); exists h; apply afind_In; exact Hf).
    destruct (nget (i_nodes s) id) as [[p rc]|]; [|lia]. exists p, rc. split; [reflexivity | lia]. }
  destruct o as [h p|h h2|h|h]; cbn [arc_step].
  - (* AAdd *)
    destruct (fresh_h_spec h (i_hs s)) as [Hne Hfr]. set (h' := fresh_h h (i_hs s)) in *.
    destruct (afind h (i_hs s)) as [id0|] eqn:Hf.
    + assert (E : istep c s (IAdd t h h' p []) = None).
      { cbn [istep]. unfold bound at 1. rewrite Hf. reflexivity. }
      rewrite E. split; [reflexivity|]. cbn [rejects]. congruence.
    + destruct (alloc_enabled c (i_al s) t HA Ht) as (al' & ob & Hal).
      destruct (alloc_obs _ _ _ _ _ Hal) as [(oid & pa & ->) Hlen].
      assert (E : istep c s (IAdd t h h' p []) =
                  match oid with
                  | Some id => Some (mkI al' (nset (i_nodes s) id (p, 2)) ((h', id) :: (h, id) :: i_hs s) (i_own s), IRAdded id pa)
                  | None => Some (mkI al' (i_nodes s) (i_hs s) (i_own s), IROom false)
                  end).
      { cbn [istep]. unfold bound. rewrite Hf, Hfr. destruct (Nat.eqb_spec h h') as [E|_]; [congruence|].
        cbn [negb andb forallb nodup_nat]. rewrite Hal. destruct oid; reflexivity. }
      destruct oid as [id|]; rewrite E.
      * destruct (istep_refines _ _ _ _ _ HI E eq_refl) as [I1 _].
        set (s1 := mkI al' (nset (i_nodes s) id (p, 2)) ((h', id) :: (h, id) :: i_hs s) (i_own s)) in *.
        assert (E2 : istep c s1 (IRelease h') =
                     Some (mkI al' (nset (nset (i_nodes s) id (p, 2)) id (p, 2 - 1)) ((h, id) :: i_hs s) [], IRReleased false)).
        { cbn [istep]. rewrite client_h_noown by exact Hown. unfold bound, release1, s1. cbn [i_hs i_nodes i_al i_own afind aremove].
          rewrite Nat.eqb_refl, nget_nset, N.eqb_refl.
          destruct (Nat.eqb_spec h h') as [E0|_]; [congruence|].
          rewrite (aremove_notin N h' (i_hs s)) by (apply (afind_None N); exact Hfr). rewrite Hown. reflexivity. }
        rewrite E2. destruct (istep_refines _ _ _ _ _ I1 E2 eq_refl) as [I2 _].
        destruct (alloc_fresh _ _ _ _ _ _ HI Hal) as (Hfree & _). split.
        -- cbn [astep iabs a_hs a_map i_hs i_nodes]. split; [exact Hf|]. exists id. repeat split; auto.
           intros j. rewrite !nget_nset. destruct (id =? j); reflexivity.
        -- split; [exact I2|]. split; [reflexivity|]. cbn [i_al]. lia.
      * exists h, p, false. auto.
  - (* AClone *)
    cbn [istep]. destruct (afind h (i_hs s)) as [id|] eqn:Hf; [|split; [reflexivity | left; exact Hf]].
    destruct (afind h2 (i_hs s)) eqn:Hf2; [split; [reflexivity | right; congruence]|].
    destruct (Hlive h id Hf) as (p & rc & Hn & _). rewrite Hn.
    destruct (iretain_ok c s h h2 id p rc HI Hf Hf2 Hn) as [I' A]. split; [exact A|].
    split; [exact I'|]. split; [exact Hown | exact Ht].
  - (* AEnd *)
    destruct (afind h (i_hs s)) as [id|] eqn:Hf.
    2:{ assert (E : istep c s (IGet h) = None) by (cbn [istep]; rewrite Hf; reflexivity).
        rewrite E. split; [reflexivity | exact Hf]. }
    destruct (Hlive h id Hf) as (p & rc & Hn & Hrc).
    assert (EG : istep c s (IGet h) = Some (s, IRVal p rc)) by (cbn [istep]; rewrite Hf, Hn; reflexivity).
    rewrite EG. cbv iota beta.
    assert (Hcl : client_h s h = true) by (rewrite client_h_noown by exact Hown; unfold bound; rewrite Hf; reflexivity).
    destruct (N.eqb_spec rc 1) as [->|Hne].
    + destruct (free_enabled c (i_al s) t id Ht) as (al' & ob & Hfree); [apply HL; congruence|].
      assert (E : istep c s (IRemove t h) = Some (mkI al' (ndel (i_nodes s) id) (aremove h (i_hs s)) [], IRRemoved p [] false)).
      { cbn [istep]. rewrite Hcl, Hf, Hn, Hown. cbn [N.eqb Pos.eqb kids_of filter map release_all i_al].
        rewrite Hfree. reflexivity. }
      rewrite E. destruct (istep_refines _ _ _ _ _ HI E eq_refl) as [I' R]. cbn [abs_ops abs_res map] in R.
      split; [apply runs_one; exact R|]. split; [exact I'|]. split; [reflexivity|]. cbn [i_al].
      rewrite (proj1 (free_threads _ _ _ _ _ _ Hfree)). exact Ht.
    + assert (Hle : (rc <=? 1) = false) by (apply N.leb_gt; lia).
      assert (E : istep c s (IRelease h) =
                  Some (mkI (i_al s) (nset (i_nodes s) id (p, rc - 1)) (aremove h (i_hs s)) [], IRReleased false)).
      { cbn [istep]. rewrite Hcl. unfold release1. rewrite Hf, Hn, Hle, Hown. reflexivity. }
      rewrite E. destruct (istep_refines _ _ _ _ _ HI E eq_refl) as [I' R]. cbn [abs_ops abs_res] in R.
      split; [apply runs_one; exact R|]. split; [exact I'|]. split; [reflexivity | exact Ht].
  - (* AGet *)
    cbn [istep]. destruct (afind h (i_hs s)) as [id|] eqn:Hf; [|split; [reflexivity | exact Hf]].
    destruct (Hlive h id Hf) as (p & rc & Hn & _). rewrite Hn. split; [|split; [exact HI | split; [exact Hown | exact Ht]]].
    cbn [astep iabs a_hs a_map]. exists id, p, rc. repeat split; auto.
Qed.

(** ** the reference store accepts / refuses the same operations *)

Import ArcSlabRefine.

Lemma ref_enabled_N (s1 s1' : astate N) r ao res :
  sim N N s1 (rabs r) -> astep N N.eqb s1 ao res s1' -> exists r' res2, ref_step r ao = Some (r', res2).
Proof.
  intros Hsim Hst. pose proof Hsim as (Hk & Hv & _).
  assert (Hb : forall h id1, afind h (a_hs s1) = Some id1 -> exists id2, afind h (r_hs r) = Some id2).
  { intros h id1 Hf. destruct (afind h (r_hs r)) as [id2|] eqn:E; [eauto|].
    apply (sim_bound N N s1 (rabs r) h Hsim) in E. congruence. }
  destruct ao as [h p|h h2|h|h]; cbn [astep] in Hst; cbn [ref_step].
  - destruct Hst as (Hf & _). apply (sim_bound N N s1 (rabs r) h Hsim) in Hf. cbn [rabs a_hs] in Hf. rewrite Hf. eauto.
  - destruct Hst as (id1 & p & rc & Hf & Hf2 & Hm & _). destruct (Hb h id1 Hf) as [id2 Hf'].
    apply (sim_bound N N s1 (rabs r) h2 Hsim) in Hf2. cbn [rabs a_hs] in Hf2. rewrite Hf', Hf2.
    pose proof (Hv h id1 id2 Hf Hf') as E. cbn [rabs a_map] in E. rewrite <- E, Hm. eauto.
  - destruct Hst as (id1 & p & rc & Hf & Hm & _). destruct (Hb h id1 Hf) as [id2 Hf']. rewrite Hf'.
    pose proof (Hv h id1 id2 Hf Hf') as E. cbn [rabs a_map] in E. rewrite <- E, Hm. destruct (rc =? 1); eauto.
  - destruct Hst as (id1 & p & rc & Hf & Hm & _). destruct (Hb h id1 Hf) as [id2 Hf']. rewrite Hf'.
    pose proof (Hv h id1 id2 Hf Hf') as E. cbn [rabs a_map] in E. rewrite <- E, Hm. eauto.
Qed.

Lemma ref_rejects_N s r o : sim N N (iabs s) (rabs r) -> rejects s o -> ref_step r o = None.
Proof.
  intros Hsim Hrej.
  assert (Hn : forall h, afind h (i_hs s) = None <-> afind h (r_hs r) = None).
  { intros h. apply (sim_bound N N (iabs s) (rabs r) h Hsim). }
  destruct o as [h p|h h2|h|h]; cbn [rejects] in Hrej; cbn [ref_step].
  - destruct (afind h (r_hs r)) eqn:E; [reflexivity|]. apply Hn in E. contradiction.
  - destruct Hrej as [Hrej|Hrej].
    + apply Hn in Hrej. rewrite Hrej. reflexivity.
    + destruct (afind h (r_hs r)); [|reflexivity]. destruct (afind h2 (r_hs r)) eqn:E; [reflexivity|].
      apply Hn in E. contradiction.
  - apply Hn in Hrej. rewrite Hrej. reflexivity.
  - apply Hn in Hrej. rewrite Hrej. reflexivity.
Qed.

Definition lift (x : option ares) : xres := match x with Some r => XOk r | None => XRej end.

(** ** the index store and the reference store: same results, rejected operations included *)
Lemma idx_equiv_from c t ops : forall s r,
  XInv c t s -> RInv r -> RcStore.AInv N N.eqb (rabs r) -> sim N N (iabs s) (rabs r) ->
  ~ In XOom (idx_exec c t s ops) ->
  idx_exec c t s ops = map lift (ref_exec r ops).
Proof.
  induction ops as [|o ops IH]; intros s r HX HRI HRA Hsim Hoom; [reflexivity|].
  cbn [idx_exec ref_exec] in *. pose proof (arc_step_spec c t s o HX) as Hspec.
  destruct (arc_step c t s o) as [s1 x]. destruct x as [r0| | |].
  - destruct Hspec as [Hst HX1].
    destruct (ref_enabled_N _ _ r _ _ Hsim Hst) as (r' & res2 & Hrs). rewrite Hrs.
    destruct (ref_refines r _ r' res2 HRI Hrs) as [Hrst HRI'].
    destruct HX as (HI & _).
    destruct (astep_id_independent N N N.eqb N.eqb N.eqb_eq N.eqb_eq _ _ _ _ _ _ _
                (proj1 (proj2 (proj2 HI))) HRA Hsim Hst Hrst) as [Eres Hsim'].
    subst res2. cbn [map lift]. f_equal.
    apply IH; auto.
    + eapply astep_inv; [exact N.eqb_eq | exact HRA | exact Hrst].
    + intro Hin. apply Hoom. right. exact Hin.
  - destruct Hspec as [-> Hrej]. rewrite (ref_rejects_N s r o Hsim Hrej). cbn [map lift]. f_equal.
    apply IH; auto. intro Hin. apply Hoom. right. exact Hin.
  - exfalso. apply Hoom. left. reflexivity.
  - contradiction.
Qed.

(** from ANY state of the index store without edges (after any allocator-internal prefix: prepared
    or bound threads, other threads' parked slots, re-used slots), any thread [t] *)
Theorem index_equiv_reference c t s ops :
  IInv c s -> i_hs s = [] -> (t < length (th (i_al s)))%nat ->
  ~ In XOom (idx_exec c t s ops) ->
  idx_exec c t s ops = map lift (ref_exec rinit ops).
Proof.
  intros HI Hhs Ht Hoom.
  assert (Hown : i_own s = []).
  { destruct HI as (_ & _ & _ & _ & HO). destruct (i_own s) as [|[k pid] r]; [reflexivity|].
    destruct (HO k pid (or_introl eq_refl)) as [B _]. rewrite Hhs in B. cbn in B. congruence. }
  apply idx_equiv_from; auto.
  - split; [exact HI | auto].
  - apply rinit_inv.
  - apply rinit_inv.
  - split; [cbn [iabs a_hs rabs rinit r_hs]; rewrite Hhs; reflexivity|].
    split; [intros h id1 id2 H; cbn [iabs a_hs] in H; rewrite Hhs in H; discriminate H|].
    intros h h' a a' b b' H; cbn [iabs a_hs] in H; rewrite Hhs in H; discriminate H.
Qed.

(** ** all three stores *)
Theorem stores_equivalent c t s spp ops :
  IInv c s -> i_hs s = [] -> (t < length (th (i_al s)))%nat -> (1 <= spp)%nat ->
  forallb item_op ops = true ->
  ~ In XOom (idx_exec c t s (map aop_of ops)) ->
  idx_exec c t s (map aop_of ops) = map lift (arc_exec spp (ArcSlab.init spp) ops) /\
  idx_exec c t s (map aop_of ops) = map lift (ref_exec rinit (map aop_of ops)).
Proof.
  intros HI Hhs Ht Hspp Hitem Hoom.
  rewrite (arcslab_equiv_reference spp Hspp ops Hitem).
  split; apply index_equiv_reference; auto.
Qed.

(** OutOfMemory of the `Arc` client: only [AAdd], and with nothing parked in other threads exactly
    when all [cap c] slots hold a node *)
Theorem arc_step_oom_single c t s o l s' :
  XInv c t s -> nth_error (th (i_al s)) t = Some l -> others_idle_p c (i_al s) t ->
  (exists h p, o = AAdd h p /\ afind h (i_hs s) = None) ->
  (arc_step c t s o = (s', XOom) -> nlive c (i_al s) = N.to_nat (cap c)) /\
  (nlive c (i_al s) = N.to_nat (cap c) -> snd (arc_step c t s o) = XOom).
Proof.
  intros HX Hl Ho (h & p & -> & Hf). pose proof HX as (HI & Hown & Ht). split.
  - intros E. pose proof (arc_step_spec c t s (AAdd h p) HX) as Hspec. rewrite E in Hspec.
    destruct Hspec as (h0 & p0 & lk & E0 & Hst). injection E0 as <- <-.
    apply (proj1 (iadd_oom_single _ _ _ _ _ _ _ _ _ _ HI Hl Ho Hst)). eauto.
  - intros Hfull. cbn [arc_step]. destruct (fresh_h_spec h (i_hs s)) as [Hne Hfr].
    destruct (istep c s (IAdd t h (fresh_h h (i_hs s)) p [])) as [[s1 r]|] eqn:E.
    + destruct (iadd_full_oom _ _ _ _ _ _ _ _ _ HI E Hfull) as [lk ->]. reflexivity.
    + exfalso. cbn [istep] in E. unfold bound in E. rewrite Hf, Hfr in E.
      destruct (Nat.eqb_spec h (fresh_h h (i_hs s))) as [E0|_]; [congruence|]. cbn [negb andb forallb nodup_nat] in E.
      destruct HI as (HA & _). destruct (alloc_enabled c (i_al s) t HA Ht) as (al' & ob & Hal).
      destruct (alloc_obs _ _ _ _ _ Hal) as [(oid & pa & ->) _]. rewrite Hal in E. destruct oid; discriminate.
Qed.
