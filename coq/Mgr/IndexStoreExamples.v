(** * STOREREF — concrete runs of the index store model: the hypotheses of the theorems of
      Mgr/IndexStoreProofs.v / IndexStoreEquiv.v are satisfiable (capacity 6, chunk size 2, 2
      terminals: slot IDs 2..7; 2-3 threads) *)

From Coq Require Import List NArith ZArith PArith Bool Arith Lia.
From OxiVerif Require Import Mgr.Alloc Mgr.AllocBase Mgr.AllocInv Mgr.AllocStep Mgr.AllocProofs Mgr.AllocExamples
  Tbl.RcStore Mgr.IndexStore Mgr.IndexStoreProofs Mgr.IndexStoreEquiv.
From OxiVerif Require Tbl.ArcSlab Tbl.ArcSlabRefine Tbl.ArcSlabExamples.
Import ListNotations.
Local Open Scope N_scope.

(** thread 0 holds the guard (chunk pre-allocation, range, local list, hand-over of its list after
    two frees, guard drop), thread 1 is a bound worker; nodes with child edges (node 4 holds the
    edges 1 and 3, node 6 the edge 4), a borrowed clone, a removal that releases the children, a
    kept entry, re-use of the freed slots by the other thread, a full store: OutOfMemory releases
    the child edge *)
Definition ex_ops : list iop :=
  [IInternal (APrepare 0); IAdd 0 0 1 10 []; IAdd 0 2 3 11 []; IRetain 0 4; IAdd 0 5 6 12 [1; 3]%nat;
   IInternal (ABind 1); IAdd 1 7 8 13 [4%nat]; IGet 0; IRelease 0; IRelease 5; IRemove 0 6; IRemove 0 2;
   IRemove 1 7; IAdd 1 9 10 14 []; IAdd 1 11 12 15 [8%nat]; IInternal (ADropGuard 0); IAdd 1 13 14 16 [];
   IAdd 1 15 16 17 []; IAdd 1 17 18 18 [10%nat]; IGet 7; IInternal (AGcFlush 1)].

Definition ex_results : list ires :=
  [IRObs (OPrep true); IRAdded 2 PSharedChunk; IRAdded 3 PLocalRange; IRCount 3; IRAdded 4 PSharedChunk;
   IRObs OUnit; IRAdded 6 PSharedBump; IRVal 10 3; IRReleased false; IRReleased false;
   IRRemoved 12 [1; 3]%nat false; IRRemoved 11 [] false; IRKept 2; IRAdded 3 PSharedList; IRAdded 4 PSharedList;
   IRObs (ODrop true 5); IRAdded 5 PSharedList; IRAdded 7 PSharedBump; IROom false; IRVal 13 2;
   IRObs (OFlush 0)].

Theorem ex_run :
  exists s, irun ex_cfg (iinit ex_cfg 2) ex_ops = Some (s, ex_results) /\
    no_leak ex_results = true /\ ireachable ex_cfg s /\ IInv ex_cfg s /\ iinv_b ex_cfg s = true /\
    i_hs s = [(16%nat, 7); (15%nat, 7); (14%nat, 5); (13%nat, 5); (12%nat, 4); (11%nat, 4); (9%nat, 3); (8%nat, 6); (7%nat, 6); (4%nat, 2)] /\
    i_own s = [(8%nat, 4); (4%nat, 6)] /\
    map (nget (i_nodes s)) [2; 3; 4; 5; 6; 7] =
      [Some (10, 1); Some (14, 1); Some (15, 2); Some (16, 2); Some (13, 2); Some (17, 2)] /\
    live_slots ex_cfg (i_al s) = [2; 3; 4; 5; 6; 7] /\
    flat_ops ex_ops ex_results =
      [AAdd 0 10; AClone 0 1; AAdd 2 11; AClone 2 3; AClone 0 4; AAdd 5 12; AClone 5 6; AAdd 7 13; AClone 7 8;
       AGet 0; AEnd 0; AEnd 5; AEnd 6; AEnd 1; AEnd 3; AEnd 2; AAdd 9 14; AClone 9 10; AAdd 11 15; AClone 11 12;
       AAdd 13 16; AClone 13 14; AAdd 15 17; AClone 15 16; AEnd 10; AGet 7].
Proof.
  destruct (irun ex_cfg (iinit ex_cfg 2) ex_ops) as [[s rs]|] eqn:E; [|vm_compute in E; discriminate].
  pose proof E as E0. vm_compute in E0. injection E0 as Es <-.
  assert (Hnl : no_leak ex_results = true) by reflexivity.
  assert (Hre : ireachable ex_cfg s).
  { exists 2%nat, ex_ops, ex_results. destruct ex_cfg_ok. auto. }
  exists s. split; [reflexivity|]. split; [exact Hnl|]. split; [exact Hre|]. split; [apply ireachable_inv; exact Hre|].
  subst s. repeat split; vm_compute; reflexivity.
Qed.

(** OutOfMemory with free slots parked in other threads: thread 0 (guard) and thread 1 (worker) hold
    the rest of their chunks (slots 3 and 5), thread 2 (no local state for this store) gets the
    last two slots and then OutOfMemory with 4 of 6 slots in use; the child edge 0 is released *)
Definition ex_parked : list iop :=
  [IInternal (APrepare 0); IAdd 0 0 1 1 []; IInternal (ABind 1); IAdd 1 2 3 2 []; IInternal ASpawn;
   IAdd 2 4 5 3 []; IAdd 2 6 7 4 []].

Theorem ex_parked_oom :
  exists s rs s', irun ex_cfg (iinit ex_cfg 2) ex_parked = Some (s, rs) /\ IInv ex_cfg s /\
    istep ex_cfg s (IAdd 2 8 9 5 [0%nat]) = Some (s', IROom false) /\
    live_slots ex_cfg (i_al s) = [2; 4; 6; 7] /\
    thread_slots ex_cfg (i_al s) 0 = [3] /\ thread_slots ex_cfg (i_al s) 1 = [5] /\
    nget (i_nodes s) 2 = Some (1, 2) /\ nget (i_nodes s') 2 = Some (1, 1) /\ afind 0%nat (i_hs s') = None /\
    (* the last edge of node 2: a `drop_edge` outside the code's assumption leaks the node *)
    (exists s'', istep ex_cfg s' (IRelease 1) = Some (s'', IRReleased true) /\
                 nget (i_nodes s'') 2 = Some (1, 0) /\ sget (sl (i_al s'')) 2 = SNode /\ i_hs s'' <> [] /\
                 afind 1%nat (i_hs s'') = None).
Proof.
  destruct (irun ex_cfg (iinit ex_cfg 2) ex_parked) as [[s rs]|] eqn:E; [|vm_compute in E; discriminate].
  pose proof E as E0. vm_compute in E0. injection E0 as Es <-.
  assert (HI : IInv ex_cfg s).
  { destruct ex_cfg_ok. eapply irun_refines; [apply iinit_inv; auto | exact E | reflexivity]. }
  exists s. do 2 eexists. split; [reflexivity|]. split; [exact HI|]. clear HI E. subst s.
  split; [vm_compute; reflexivity|]. repeat split; try (vm_compute; reflexivity).
  eexists. repeat split; try (vm_compute; reflexivity); vm_compute; discriminate.
Qed.

(** the three stores on ARCSLAB's example script (rejected operations included); eight additions
    on six slots: OutOfMemory exactly from the seventh on *)
Theorem ex_equiv :
  let ops := ArcSlabExamples.ex_item_ops in
  forallb ArcSlabRefine.item_op ops = true /\
  ~ In XOom (idx_exec ex_cfg 0 (iinit ex_cfg 1) (map ArcSlabRefine.aop_of ops)) /\
  idx_exec ex_cfg 0 (iinit ex_cfg 1) (map ArcSlabRefine.aop_of ops) =
    map lift (ArcSlabRefine.arc_exec 3 (ArcSlab.init 3) ops) /\
  idx_exec ex_cfg 0 (iinit ex_cfg 1) (map ArcSlabRefine.aop_of ops) =
    [XOk ARAdded; XOk ARAdded; XOk (ARCount 2); XOk ARKept; XOk (ARVal 1 1); XOk (ARGone 1);
     XOk ARAdded; XOk (ARGone 2); XRej; XRej] /\
  idx_exec ex_cfg 0 (iinit ex_cfg 1) (map (fun k => AAdd k 1) (seq 0 8)) =
    [XOk ARAdded; XOk ARAdded; XOk ARAdded; XOk ARAdded; XOk ARAdded; XOk ARAdded; XOom; XOom].
Proof.
  cbv zeta. split; [reflexivity|].
  assert (E : idx_exec ex_cfg 0 (iinit ex_cfg 1) (map ArcSlabRefine.aop_of ArcSlabExamples.ex_item_ops) =
              [XOk ARAdded; XOk ARAdded; XOk (ARCount 2); XOk ARKept; XOk (ARVal 1 1); XOk (ARGone 1);
               XOk ARAdded; XOk (ARGone 2); XRej; XRej]) by (vm_compute; reflexivity).
  split; [rewrite E; intros H; repeat (destruct H as [H|H]; [discriminate H|]); exact H|].
  split; [|split; [exact E | vm_compute; reflexivity]].
  destruct ex_cfg_ok as [Hc1 Hc2].
  apply (stores_equivalent ex_cfg 0 (iinit ex_cfg 1) 3 ArcSlabExamples.ex_item_ops).
  - apply iinit_inv; auto.
  - reflexivity.
  - cbn. lia.
  - lia.
  - reflexivity.
  - rewrite E. intros Hin. repeat (destruct Hin as [Hin|Hin]; [discriminate Hin|]). exact Hin.
Qed.
