(** * STOREREF — the node store of the index-based manager (Mgr/IndexStore.v = slot allocator of
      Mgr/Alloc.v + payloads / counts + edge values) refines the abstract reference-counted store
      of Tbl/RcStore.v, exactly as the pointer-based manager's slab does (Tbl/ArcSlabRefine.v).

    Abstraction [iabs]: ids = slot IDs, map = the (payload, stored count) of the slots that hold a
    node, handle variables = the edge values.  Invariant [IInv]: Alloc's invariant, "a slot holds a
    node in the allocator iff it has a payload" ([Link]), the counting invariant of the abstract
    store (stored count = number of edge values, never 0), and every child edge is an edge value
    whose holder is a live node ([OwnOK]).

    [istep_refines]: every operation that stays inside the code's assumption (no `drop_edge` of a
    last reference: [leaked r = false]) keeps [IInv] and IS the abstract script [abs_ops] with the
    results [abs_res] (one step for retain / release / get, two for `add_node` (new entry + second
    edge), 1 + #children for a removal, the children's releases for a failed `add_node`, none for
    allocator-internal actions and a kept entry).  Out of memory: [iadd_oom_cases] /
    [iadd_full_oom] / [iadd_capacity]. *)

From Coq Require Import List NArith ZArith PArith Bool Arith Lia FMapPositive Permutation.
From OxiVerif Require Import Base.ListFacts Mgr.Alloc Mgr.AllocBase Mgr.AllocInv Mgr.AllocStep Mgr.AllocProofs
  Tbl.RcStore Mgr.IndexStore.
Import ListNotations.
Local Open Scope N_scope.

Arguments N.add : simpl never.
Arguments N.sub : simpl never.

Notation AlInv := AllocInv.AInv.
Notation RcInv := (RcStore.AInv N N.eqb).
Notation rstep := (RcStore.astep N N.eqb).
Notation rruns := (RcStore.aruns N N.eqb).

(** ** the node map *)

Lemma nget_nset m id v j : nget (nset m id v) j = if id =? j then Some v else nget m j.
Proof.
  unfold nget, nset. destruct (N.eqb_spec id j) as [->|Hne]; [apply PositiveMap.gss|].
  apply PositiveMap.gso. intro E. apply key_inj in E. congruence.
Qed.

Lemma nget_ndel m id j : nget (ndel m id) j = if id =? j then None else nget m j.
Proof.
  unfold nget, ndel. destruct (N.eqb_spec id j) as [->|Hne]; [apply PositiveMap.grs|].
  apply PositiveMap.gro. intro E. apply key_inj in E. congruence.
Qed.

Lemma nget_empty id : nget (PositiveMap.empty (N * N)) id = None.
Proof. apply PositiveMap.gempty. Qed.

Lemma nset_live_dom m id v0 v j :
  nget m id = Some v0 -> (nget (nset m id v) j <> None <-> nget m j <> None).
Proof.
  intros H. rewrite nget_nset. destruct (N.eqb_spec id j) as [->|Hne]; [|tauto].
  rewrite H. split; discriminate.
Qed.

(** ** handle lists *)

Lemma bound_false hs h : bound hs h = false <-> afind h hs = None.
Proof. unfold bound. destruct (afind h hs); split; congruence. Qed.

Lemma bound_true hs h : bound hs h = true <-> afind h hs <> None.
Proof. unfold bound. destruct (afind h hs); split; congruence. Qed.

Lemma afind_cons_some k e (hs : list (nat * N)) : afind k hs <> None -> afind k (e :: hs) <> None.
Proof. destruct e as [k0 v]. cbn [afind]. destruct (k0 =? k)%nat; [discriminate | auto]. Qed.

Lemma In_afind_some k v (hs : list (nat * N)) : In (k, v) hs -> afind k hs <> None.
Proof.
  intros H E. apply (afind_None N) in E. apply E. apply in_map_iff. exists (k, v). auto.
Qed.

Lemma In_aremove k v c (l : list (nat * N)) : In (k, v) (aremove c l) <-> In (k, v) l /\ k <> c.
Proof.
  induction l as [|[k0 v0] r IH]; cbn [aremove In]; [tauto|].
  destruct (Nat.eqb_spec k0 c) as [->|Hne].
  - rewrite IH. split; [tauto|]. intros [[E|H] Hk]; [inversion E; subst; contradiction | tauto].
  - cbn [In]. rewrite IH. split.
    + intros [E|[H Hk]]; [inversion E; subst; auto | tauto].
    + tauto.
Qed.

Fixpoint rm_all (cs : list nat) (l : list (nat * N)) : list (nat * N) :=
  match cs with [] => l | c :: r => rm_all r (aremove c l) end.

Lemma In_rm_all cs : forall k v l, In (k, v) (rm_all cs l) <-> In (k, v) l /\ ~ In k cs.
Proof.
  induction cs as [|c r IH]; intros k v l; cbn [rm_all In]; [tauto|].
  rewrite IH, In_aremove. split.
  - intros [[A B] C]; split; [auto | intros [E|E]; [congruence | auto]].
  - intros [A B]. split; [split; [exact A | intros E; apply B; left; congruence] | intros E; apply B; right; exact E].
Qed.

Lemma afind_rm_all cs : forall k l, ~ In k cs -> afind k (rm_all cs l) = afind k l.
Proof.
  induction cs as [|c r IH]; intros k l Hk; cbn [rm_all]; [reflexivity|].
  rewrite IH by (intro; apply Hk; right; auto). rewrite afind_aremove.
  destruct (Nat.eqb_spec c k); [exfalso; apply Hk; left; auto | reflexivity].
Qed.

Lemma rm_all_NoDup cs : forall l, NoDup (map fst l) -> NoDup (map fst (rm_all cs l)).
Proof.
  induction cs as [|c r IH]; intros l H; cbn [rm_all]; [exact H|]. apply IH. apply aremove_NoDup. exact H.
Qed.

Lemma nodup_nat_spec l : nodup_nat l = true -> NoDup l.
Proof.
  induction l as [|x r IH]; cbn [nodup_nat]; [constructor|]. intros H. apply andb_prop in H. destruct H as [A B].
  constructor; [|auto]. intro Hin. apply negb_true_iff in A.
  assert (existsb (Nat.eqb x) r = true); [|congruence]. apply existsb_exists. exists x. split; [auto | apply Nat.eqb_refl].
Qed.

Lemma In_kids_iff k p own : In k (kids_of p own) <-> In (k, p) own.
Proof.
  unfold kids_of. rewrite in_map_iff. split.
  - intros ([k' p'] & E & Hin). apply filter_In in Hin. destruct Hin as [Hin Hp]. cbn in *. subst k'.
    apply N.eqb_eq in Hp. subst. exact Hin.
  - intros H. exists (k, p). split; [reflexivity|]. apply filter_In. split; [exact H | apply N.eqb_refl].
Qed.

(** ** the invariant *)

(** a slot holds a node in the allocator iff it has a payload *)
Definition Link (s : istate) : Prop :=
  forall id, sget (sl (i_al s)) id = SNode <-> nget (i_nodes s) id <> None.

(** the child edges are edge values, each held by a live node *)
Definition OwnOK (s : istate) : Prop :=
  NoDup (map fst (i_own s)) /\
  forall k pid, In (k, pid) (i_own s) -> afind k (i_hs s) <> None /\ nget (i_nodes s) pid <> None.

Definition IInv (c : cfg) (s : istate) : Prop :=
  AlInv c (i_al s) /\ Link s /\ RcInv (iabs s) /\ OwnOK s.

Lemma iinit_inv c n : 1 <= chunk c -> 1 <= term c -> IInv c (iinit c n).
Proof.
  intros Hc Ht. split; [apply init_inv; auto|]. split; [|split].
  - intros id. cbn. rewrite sget_empty, nget_empty. split; [discriminate | congruence].
  - split; [constructor|]. intros id. cbn. rewrite nget_empty. reflexivity.
  - split; [constructor|]. intros k pid [].
Qed.

(** ** `drop_edge` *)

Lemma release1_spec s c s1 lk : release1 s c = Some (s1, lk) ->
  exists id p rc, afind c (i_hs s) = Some id /\ nget (i_nodes s) id = Some (p, rc) /\
    s1 = mkI (i_al s) (nset (i_nodes s) id (p, rc - 1)) (aremove c (i_hs s)) (aremove c (i_own s)) /\
    lk = (rc <=? 1).
Proof.
  unfold release1. destruct (afind c (i_hs s)) as [id|]; [|discriminate].
  destruct (nget (i_nodes s) id) as [[p rc]|] eqn:E; [|discriminate].
  intros H. inversion H; subst. exists id, p, rc. auto.
Qed.

(** a `drop_edge` that is not the last reference is the abstract [AEnd] with result "kept" *)
Lemma release1_astep s c s1 : release1 s c = Some (s1, false) -> rstep (iabs s) (AEnd c) ARKept (iabs s1).
Proof.
  intros H. destruct (release1_spec _ _ _ _ H) as (id & p & rc & Hf & Hn & -> & Hlk).
  symmetry in Hlk. apply N.leb_gt in Hlk.
  cbn [astep iabs a_hs a_map i_hs i_nodes]. exists id, p, rc.
  split; [exact Hf|]. split; [exact Hn|]. split; [reflexivity|]. right.
  split; [lia|]. split; [reflexivity|]. intros j. apply nget_nset.
Qed.

(** a `drop_edge` of the LAST reference: the abstract store lets the payload go, the index store
    keeps the node with count 0 in its slot for ever (the documented leak) *)
Theorem release1_leak_iff s c s1 lk : RcInv (iabs s) -> release1 s c = Some (s1, lk) ->
  (lk = true <-> exists id p, afind c (i_hs s) = Some id /\ nget (i_nodes s) id = Some (p, 1)).
Proof.
  intros [_ Hc] H. destruct (release1_spec _ _ _ _ H) as (id & p & rc & Hf & Hn & _ & ->). split.
  - intros E. apply N.leb_le in E. exists id, p. split; [exact Hf|]. rewrite Hn.
    specialize (Hc id). cbn [iabs a_map a_hs] in Hc. rewrite Hn in Hc. destruct Hc as [Hc Hp].
    repeat f_equal. lia.
  - intros (id' & p' & Hf' & Hn'). rewrite Hf in Hf'. injection Hf' as <-. rewrite Hn in Hn'.
    inversion Hn'; subst. reflexivity.
Qed.

Lemma release_all_spec cs : forall s s', release_all s cs = Some (s', false) ->
  rruns (iabs s) (map AEnd cs) (map (fun _ => ARKept) cs) (iabs s') /\
  i_al s' = i_al s /\ i_hs s' = rm_all cs (i_hs s) /\ i_own s' = rm_all cs (i_own s) /\
  (forall j, nget (i_nodes s') j <> None <-> nget (i_nodes s) j <> None).
Proof.
  induction cs as [|c r IH]; intros s s' H; cbn [release_all] in H.
  - inversion H; subst. cbn. split; [constructor|]. repeat split; auto.
  - destruct (release1 s c) as [[s1 lk]|] eqn:E1; [|discriminate].
    destruct (release_all s1 r) as [[s2 lk2]|] eqn:E2; [|discriminate].
    inversion H; subst s2. apply orb_false_elim in H2. destruct H2 as [-> ->].
    destruct (IH _ _ E2) as (R & Ea & Eh & Eo & Ed).
    pose proof (release1_astep _ _ _ E1) as A1.
    destruct (release1_spec _ _ _ _ E1) as (id & p & rc & Hf & Hn & Es1 & _).
    cbn [map rm_all]. split; [econstructor; eauto|].
    rewrite Ea, Eh, Eo, Es1. cbn [i_al i_hs i_own]. repeat split; auto.
    + intros Hj. apply Ed in Hj. rewrite Es1 in Hj. cbn [i_nodes] in Hj.
      eapply nset_live_dom; eauto.
    + intros Hj. apply Ed. rewrite Es1. cbn [i_nodes]. eapply nset_live_dom; eauto.
Qed.

Lemma release_all_inv c cs s s' :
  IInv c s -> release_all s cs = Some (s', false) ->
  IInv c s' /\ rruns (iabs s) (map AEnd cs) (map (fun _ => ARKept) cs) (iabs s').
Proof.
  intros (HA & HL & HR & HO1 & HO2) H. destruct (release_all_spec _ _ _ H) as (R & Ea & Eh & Eo & Ed).
  split; [|exact R]. split; [rewrite Ea; exact HA|]. split; [|split].
  - intros id. rewrite Ea, Ed. apply HL.
  - eapply aruns_inv; [exact N.eqb_eq | exact HR | exact R].
  - split; [rewrite Eo; apply rm_all_NoDup; exact HO1|].
    intros k pid Hin. rewrite Eo in Hin. apply In_rm_all in Hin. destruct Hin as [Hin Hk].
    destruct (HO2 _ _ Hin) as [B L]. split; [rewrite Eh, afind_rm_all; auto | apply Ed; exact L].
Qed.

(** ** the allocator's slots *)

Lemma free_shape c s t id s' o : step c good s (AFree t id) = Some (s', o) ->
  sget (sl s) id = SNode /\ exists nx, sl s' = sset (sl s) id (SFree nx).
Proof. exact (step_slots c s (AFree t id) s' o). Qed.

(** allocator-internal actions neither create nor destroy a node *)
Lemma internal_nodes c s a s' o : AlInv c s -> internal a = true -> step c good s a = Some (s', o) ->
  forall j, sget (sl s') j = SNode <-> sget (sl s) j = SNode.
Proof.
  intros I Hint H j. split.
  - intros Hj. pose proof (step_slots _ _ _ _ _ H) as E.
    destruct a; try discriminate Hint; try (rewrite E in Hj; exact Hj).
    (* a guard drop links the rest of the thread's chunk into the free list: no node there *)
    destruct E as [E | (l & _ & _ & _ & E)]; rewrite E in Hj; [exact Hj|].
    destruct (in_dec N.eq_dec j (range_ids c (l_init l) (N.to_nat (chunk_end c (l_init l) - l_init l)))) as [Hi|Hi].
    + destruct (link_range_in c _ (sl s) _ (l_next l) j Hi) as [nx E']. rewrite E' in Hj. discriminate.
    + rewrite link_range_other in Hj; auto.
  - intros Hj. eapply step_keeps_node; eauto. intros t E. subst a. discriminate.
Qed.

(** the slot that `add_node` hands out held no payload *)
Lemma alloc_fresh c s t al' id pa :
  IInv c s -> step c good (i_al s) (AAlloc t) = Some (al', OAlloc (Some id) pa) ->
  nget (i_nodes s) id = None /\ sl al' = sset (sl (i_al s)) id SNode /\ AlInv c al'.
Proof.
  intros (HA & HL & _) H. destruct (alloc_safe _ _ _ _ _ _ HA H) as (Hr & _ & Hnl & _ & _ & I').
  split; [|split; [|exact I']].
  - destruct (nget (i_nodes s) id) eqn:E; [|reflexivity]. exfalso. apply Hnl. apply in_live_slots.
    split; [exact Hr|]. apply HL. congruence.
  - exact (step_slots _ _ _ _ _ H).
Qed.

Lemma istep_add_parts c s t h h2 p cs s' r : istep c s (IAdd t h h2 p cs) = Some (s', r) ->
  (afind h (i_hs s) = None /\ afind h2 (i_hs s) = None /\ h <> h2 /\
   forallb (client_h s) cs = true /\ nodup_nat cs = true) /\
  exists al' oid pa, step c good (i_al s) (AAlloc t) = Some (al', OAlloc oid pa) /\
    match oid with
    | Some id => s' = mkI al' (nset (i_nodes s) id (p, 2)) ((h2, id) :: (h, id) :: i_hs s)
                          (map (fun k => (k, id)) cs ++ i_own s) /\ r = IRAdded id pa
    | None => exists lk, release_all (mkI al' (i_nodes s) (i_hs s) (i_own s)) cs = Some (s', lk) /\ r = IROom lk
    end.
Proof.
  intros H. cbn [istep] in H.
  destruct (negb (bound (i_hs s) h) && negb (bound (i_hs s) h2) && negb (h =? h2)%nat &&
            forallb (client_h s) cs && nodup_nat cs) eqn:G; [|discriminate].
  apply andb_prop in G. destruct G as [G G5]. apply andb_prop in G. destruct G as [G G4].
  apply andb_prop in G. destruct G as [G G3]. apply andb_prop in G. destruct G as [G1 G2].
  apply negb_true_iff, bound_false in G1. apply negb_true_iff, bound_false in G2.
  apply negb_true_iff, Nat.eqb_neq in G3. split; [auto 6|].
  destruct (step c good (i_al s) (AAlloc t)) as [[al' [| |oid pa| | |]]|]; try discriminate.
  exists al', oid, pa. split; [reflexivity|]. destruct oid as [id|].
  - injection H as <- <-. auto.
  - destruct (release_all _ cs) as [[s2 lk]|]; [|discriminate]. injection H as <- <-. eauto.
Qed.

(** ** every operation, one by one *)

Lemma iadd_ok c s t h h2 p cs al' id pa :
  IInv c s -> afind h (i_hs s) = None -> afind h2 (i_hs s) = None -> h <> h2 ->
  forallb (client_h s) cs = true -> nodup_nat cs = true ->
  step c good (i_al s) (AAlloc t) = Some (al', OAlloc (Some id) pa) ->
  IInv c (mkI al' (nset (i_nodes s) id (p, 2)) ((h2, id) :: (h, id) :: i_hs s) (map (fun k => (k, id)) cs ++ i_own s)) /\
  rruns (iabs s) [AAdd h p; AClone h h2] [ARAdded; ARCount 2]
        (iabs (mkI al' (nset (i_nodes s) id (p, 2)) ((h2, id) :: (h, id) :: i_hs s) (map (fun k => (k, id)) cs ++ i_own s))).
Proof.
  intros HI Hh Hh2 Hne Hcs Hnd H. destruct (alloc_fresh _ _ _ _ _ _ HI H) as (Hfree & Esl & I').
  destruct HI as (HA & HL & HR & HO1 & HO2).
  assert (R : rruns (iabs s) [AAdd h p; AClone h h2] [ARAdded; ARCount 2]
                (iabs (mkI al' (nset (i_nodes s) id (p, 2)) ((h2, id) :: (h, id) :: i_hs s) (map (fun k => (k, id)) cs ++ i_own s)))).
  { apply aruns_cons with (s1 := mkA (fun j => if id =? j then Some (p, 1) else nget (i_nodes s) j) ((h, id) :: i_hs s)).
    - cbn [astep iabs a_hs a_map]. split; [exact Hh|]. exists id. repeat split; auto.
    - eapply aruns_cons; [|apply aruns_nil].
      cbn [astep iabs a_hs a_map i_hs i_nodes afind]. exists id, p, 1.
      rewrite Nat.eqb_refl. split; [reflexivity|].
      destruct (Nat.eqb_spec h h2) as [E|_]; [contradiction|]. split; [exact Hh2|].
      rewrite N.eqb_refl. split; [reflexivity|]. split; [reflexivity|]. split; [reflexivity|].
      intros j. rewrite nget_nset. destruct (id =? j); reflexivity. }
  split; [|exact R]. split; [exact I'|]. split; [|split].
  - intros j. cbn [i_al i_nodes]. rewrite Esl, nget_nset. destruct (N.eqb_spec id j) as [<-|Hj].
    + rewrite sget_sset_same. split; [discriminate | reflexivity].
    + rewrite sget_sset_other by congruence. apply HL.
  - eapply aruns_inv; [exact N.eqb_eq | exact HR | exact R].
  - rewrite forallb_forall in Hcs. split; cbn [i_own i_hs i_nodes].
    + rewrite map_app, map_map. cbn [fst]. rewrite map_id. apply NoDup_app_intro; [apply nodup_nat_spec; exact Hnd | exact HO1|].
      intros x Hx. specialize (Hcs x Hx). unfold client_h in Hcs. apply andb_prop in Hcs. destruct Hcs as [_ B].
      apply negb_true_iff in B. apply bound_false in B. apply (afind_None N). exact B.
    + intros k pid Hin. apply in_app_or in Hin. destruct Hin as [Hin|Hin].
      * apply in_map_iff in Hin. destruct Hin as (x & E & Hx). injection E as <- <-.
        specialize (Hcs x Hx). unfold client_h in Hcs. apply andb_prop in Hcs. destruct Hcs as [B _].
        apply bound_true in B. split; [apply afind_cons_some, afind_cons_some; exact B|].
        rewrite nget_nset, N.eqb_refl. discriminate.
      * destruct (HO2 _ _ Hin) as [B L]. split; [apply afind_cons_some, afind_cons_some; exact B|].
        rewrite nget_nset. destruct (id =? pid); [discriminate | exact L].
Qed.

Lemma iadd_oom c s t cs al' pa s' :
  IInv c s -> step c good (i_al s) (AAlloc t) = Some (al', OAlloc None pa) ->
  release_all (mkI al' (i_nodes s) (i_hs s) (i_own s)) cs = Some (s', false) ->
  IInv c s' /\ rruns (iabs s) (map AEnd cs) (map (fun _ => ARKept) cs) (iabs s').
Proof.
  intros (HA & HL & HR & HO) H Hrel.
  assert (I0 : IInv c (mkI al' (i_nodes s) (i_hs s) (i_own s))).
  { split; [eapply step_inv; eauto|]. split; [|split; [exact HR | exact HO]].
    intros id. cbn [i_al i_nodes]. rewrite (step_slots _ _ _ _ _ H : sl al' = sl (i_al s)). apply HL. }
  exact (release_all_inv _ _ _ _ I0 Hrel).
Qed.

Lemma iretain_ok c s h h2 id p rc :
  IInv c s -> afind h (i_hs s) = Some id -> afind h2 (i_hs s) = None -> nget (i_nodes s) id = Some (p, rc) ->
  IInv c (mkI (i_al s) (nset (i_nodes s) id (p, rc + 1)) ((h2, id) :: i_hs s) (i_own s)) /\
  rstep (iabs s) (AClone h h2) (ARCount (rc + 1))
        (iabs (mkI (i_al s) (nset (i_nodes s) id (p, rc + 1)) ((h2, id) :: i_hs s) (i_own s))).
Proof.
  intros (HA & HL & HR & HO1 & HO2) Hf Hf2 Hn.
  assert (A : rstep (iabs s) (AClone h h2) (ARCount (rc + 1))
                (iabs (mkI (i_al s) (nset (i_nodes s) id (p, rc + 1)) ((h2, id) :: i_hs s) (i_own s)))).
  { cbn [astep iabs a_hs a_map i_hs i_nodes]. exists id, p, rc. repeat split; auto. intros j. apply nget_nset. }
  split; [|exact A]. split; [exact HA|]. split; [|split].
  - intros j. cbn [i_al i_nodes]. rewrite (nset_live_dom _ _ _ _ j Hn). apply HL.
  - eapply astep_inv; [exact N.eqb_eq | exact HR | exact A].
  - split; [exact HO1|]. intros k pid Hin. cbn [i_hs i_nodes]. destruct (HO2 _ _ Hin) as [B L].
    split; [apply afind_cons_some; exact B | apply (nset_live_dom _ _ _ _ pid Hn); exact L].
Qed.

Lemma iremove_ok c s t h id p s1 al' o :
  IInv c s -> client_h s h = true -> afind h (i_hs s) = Some id -> nget (i_nodes s) id = Some (p, 1) ->
  release_all (mkI (i_al s) (ndel (i_nodes s) id) (aremove h (i_hs s)) (i_own s)) (kids_of id (i_own s)) = Some (s1, false) ->
  step c good (i_al s1) (AFree t id) = Some (al', o) ->
  IInv c (mkI al' (i_nodes s1) (i_hs s1) (i_own s1)) /\
  rruns (iabs s) (AEnd h :: map AEnd (kids_of id (i_own s))) (ARGone p :: map (fun _ => ARKept) (kids_of id (i_own s)))
        (iabs (mkI al' (i_nodes s1) (i_hs s1) (i_own s1))).
Proof.
  intros (HA & HL & HR & HO1 & HO2) Hcl Hf Hn Hrel Hfree.
  destruct (release_all_spec _ _ _ Hrel) as (R & Ea & Eh & Eo & Ed). cbn [i_al i_hs i_own i_nodes] in *.
  assert (R' : rruns (iabs s) (AEnd h :: map AEnd (kids_of id (i_own s)))
                 (ARGone p :: map (fun _ => ARKept) (kids_of id (i_own s)))
                 (iabs (mkI al' (i_nodes s1) (i_hs s1) (i_own s1)))).
  { eapply aruns_cons; [|exact R]. cbn [astep iabs a_hs a_map i_hs i_nodes]. exists id, p, 1.
    split; [exact Hf|]. split; [exact Hn|]. split; [reflexivity|]. left.
    split; [reflexivity|]. split; [reflexivity|]. intros j. apply nget_ndel. }
  split; [|exact R']. rewrite Ea in Hfree. destruct (free_shape _ _ _ _ _ _ Hfree) as (Hnode & nx & Esl).
  split; [eapply step_inv; eauto|]. split; [|split].
  - intros j. cbn [i_al i_nodes]. rewrite Esl, Ed, nget_ndel. destruct (N.eqb_spec id j) as [<-|Hj].
    + rewrite sget_sset_same. split; [discriminate | congruence].
    + rewrite sget_sset_other by congruence. apply HL.
  - eapply aruns_inv; [exact N.eqb_eq | exact HR | exact R'].
  - unfold client_h in Hcl. apply andb_prop in Hcl. destruct Hcl as [_ Hcl]. apply negb_true_iff in Hcl.
    apply bound_false in Hcl. split; cbn [i_own i_hs i_nodes].
    + rewrite Eo. apply rm_all_NoDup. exact HO1.
    + intros k pid Hin. rewrite Eo in Hin. apply In_rm_all in Hin. destruct Hin as [Hin Hk].
      destruct (HO2 _ _ Hin) as [B L].
      assert (Hpid : pid <> id) by (intros ->; apply Hk; apply In_kids_iff; exact Hin).
      assert (Hkh : h <> k) by (intros ->; apply (In_afind_some _ _ _ Hin); exact Hcl).
      split.
      * rewrite Eh, afind_rm_all by exact Hk. rewrite afind_aremove.
        destruct (Nat.eqb_spec h k); [contradiction | exact B].
      * apply Ed. rewrite nget_ndel. destruct (N.eqb_spec id pid); [congruence | exact L].
Qed.

(** ** the refinement: every operation inside the code's assumption keeps the invariant and IS
    its abstract script *)
Theorem istep_refines c s o s' r :
  IInv c s -> istep c s o = Some (s', r) -> leaked r = false ->
  IInv c s' /\ rruns (iabs s) (abs_ops o r) (abs_res o r) (iabs s').
Proof.
  intros HI H Hlk. destruct o as [t h h2 p cs|h h2|h|t h|h|a]; cbn [istep] in H.
  - (* IAdd *)
    destruct (istep_add_parts _ _ _ _ _ _ _ _ _ H) as ((G1 & G2 & G3 & G4 & G5) & al' & oid & pa & Hal & Hres).
    destruct oid as [id|].
    + destruct Hres as [-> ->]. cbn [abs_ops abs_res]. eapply iadd_ok; eauto.
    + destruct Hres as (lk & Hrel & ->). cbn [leaked] in Hlk. subst lk. cbn [abs_ops abs_res]. eapply iadd_oom; eauto.
  - (* IRetain *)
    destruct (afind h (i_hs s)) as [id|] eqn:Hf; [|discriminate].
    destruct (afind h2 (i_hs s)) eqn:Hf2; [discriminate|].
    destruct (nget (i_nodes s) id) as [[p rc]|] eqn:Hn; [|discriminate].
    injection H as <- <-. cbn [abs_ops abs_res].
    destruct (iretain_ok c s h h2 id p rc HI Hf Hf2 Hn) as [I' A]. split; [exact I'|].
    eapply aruns_cons; [exact A | apply aruns_nil].
  - (* IRelease *)
    destruct (client_h s h); [|discriminate].
    destruct (release1 s h) as [[s1 lk]|] eqn:Hrel; [|discriminate]. injection H as <- <-.
    cbn [leaked] in Hlk. subst lk. cbn [abs_ops abs_res].
    apply (release_all_inv c [h] s s1 HI). cbn [release_all]. rewrite Hrel. reflexivity.
  - (* IRemove *)
    destruct (client_h s h) eqn:Hcl; [|discriminate].
    destruct (afind h (i_hs s)) as [id|] eqn:Hf; [|discriminate].
    destruct (nget (i_nodes s) id) as [[p rc]|] eqn:Hn; [|discriminate].
    destruct (N.eqb_spec rc 1) as [->|Hrc].
    + destruct (release_all (mkI (i_al s) (ndel (i_nodes s) id) (aremove h (i_hs s)) (i_own s)) (kids_of id (i_own s)))
        as [[s1 lk]|] eqn:Hrel; [|discriminate].
      destruct (step c good (i_al s1) (AFree t id)) as [[al' o]|] eqn:Hfree; [|discriminate].
      injection H as <- <-. cbn [leaked] in Hlk. subst lk. cbn [abs_ops abs_res]. eapply iremove_ok; eauto.
    + injection H as <- <-. cbn [abs_ops abs_res]. split; [exact HI | apply aruns_nil].
  - (* IGet *)
    destruct (afind h (i_hs s)) as [id|] eqn:Hf; [|discriminate].
    destruct (nget (i_nodes s) id) as [[p rc]|] eqn:Hn; [|discriminate].
    injection H as <- <-. cbn [abs_ops abs_res]. split; [exact HI|].
    eapply aruns_cons; [|apply aruns_nil]. cbn [astep iabs a_hs a_map]. exists id, p, rc. repeat split; auto.
  - (* IInternal *)
    destruct (internal a) eqn:Hint; [|discriminate].
    destruct (step c good (i_al s) a) as [[al' ob]|] eqn:Hal; [|discriminate].
    injection H as <- <-. cbn [abs_ops abs_res]. split; [|apply aruns_nil].
    destruct HI as (HA & HL & HR & HO). split; [eapply step_inv; eauto|]. split; [|split; [exact HR | exact HO]].
    intros j. cbn [i_al i_nodes]. rewrite (internal_nodes _ _ _ _ _ HA Hint Hal j). apply HL.
Qed.

(** whole runs (any interleaving of the threads' operations) *)
Definition no_leak (rs : list ires) : bool := forallb (fun r => negb (leaked r)) rs.

Fixpoint flat_ops (ops : list iop) (rs : list ires) : list aop :=
  match ops, rs with o :: os, r :: rs' => abs_ops o r ++ flat_ops os rs' | _, _ => [] end.
Fixpoint flat_res (ops : list iop) (rs : list ires) : list ares :=
  match ops, rs with o :: os, r :: rs' => abs_res o r ++ flat_res os rs' | _, _ => [] end.

Lemma aruns_app (s1 s2 s3 : astate N) os1 rs1 os2 rs2 :
  rruns s1 os1 rs1 s2 -> rruns s2 os2 rs2 s3 -> rruns s1 (os1 ++ os2) (rs1 ++ rs2) s3.
Proof. intros R1 R2. induction R1; cbn; [exact R2 | econstructor; eauto]. Qed.

Theorem irun_refines c ops : forall s s' rs,
  IInv c s -> irun c s ops = Some (s', rs) -> no_leak rs = true ->
  IInv c s' /\ rruns (iabs s) (flat_ops ops rs) (flat_res ops rs) (iabs s').
Proof.
  induction ops as [|o ops IH]; intros s s' rs HI H Hnl; cbn [irun] in H.
  - inversion H; subst. split; [exact HI | apply aruns_nil].
  - destruct (istep c s o) as [[s1 x]|] eqn:E1; [|discriminate].
    destruct (irun c s1 ops) as [[s2 xs]|] eqn:E2; [|discriminate]. injection H as <- <-.
    cbn [no_leak forallb] in Hnl. apply andb_prop in Hnl. destruct Hnl as [Hx Hxs]. apply negb_true_iff in Hx.
    destruct (istep_refines _ _ _ _ _ HI E1 Hx) as [I1 R1]. destruct (IH _ _ _ I1 E2 Hxs) as [I2 R2].
    split; [exact I2|]. cbn [flat_ops flat_res]. eapply aruns_app; eauto.
Qed.

(** states reachable from a new manager under any schedule that stays inside the assumption *)
Definition ireachable (c : cfg) (s : istate) : Prop :=
  exists n ops rs, 1 <= chunk c /\ 1 <= term c /\ irun c (iinit c n) ops = Some (s, rs) /\ no_leak rs = true.

Theorem ireachable_inv c s : ireachable c s -> IInv c s.
Proof.
  intros (n & ops & rs & Hc & Ht & H & Hnl). eapply irun_refines; eauto. apply iinit_inv; auto.
Qed.

(** ** the counts: stored count = client edges + child edges stored in live nodes *)

Lemma acount_split s id :
  acount N N.eqb id (i_hs s) = (nclient s id + nparent s id)%nat.
Proof.
  unfold acount, nclient, nparent. induction (i_hs s) as [|[k v] r IH]; [reflexivity|].
  cbn [filter fst snd]. destruct (v =? id); cbn [andb]; [|exact IH].
  destruct (bound (i_own s) k); cbn [negb length]; rewrite IH; lia.
Qed.

Theorem index_store_counts c s : IInv c s ->
  (forall id, match nget (i_nodes s) id with
              | Some (p, rc) => rc = N.of_nat (nclient s id + nparent s id) /\ 1 <= rc /\
                                sget (sl (i_al s)) id = SNode
              | None => nclient s id = 0%nat /\ nparent s id = 0%nat /\ sget (sl (i_al s)) id <> SNode
              end) /\
  (forall k pid, In (k, pid) (i_own s) -> exists id, afind k (i_hs s) = Some id /\ nget (i_nodes s) pid <> None).
Proof.
  intros (HA & HL & [_ HR] & HO1 & HO2). split.
  - intros id. specialize (HR id). cbn [iabs a_map a_hs] in HR. rewrite acount_split in HR.
    pose proof (HL id) as L. destruct (nget (i_nodes s) id) as [[p rc]|].
    + destruct HR as [E P]. split; [exact E|]. split; [lia|]. apply L. discriminate.
    + split; [lia|]. split; [lia|]. intro E. apply L in E. congruence.
  - intros k pid Hin. destruct (HO2 _ _ Hin) as [B L]. destruct (afind k (i_hs s)) as [id|]; [eauto | congruence].
Qed.

(** ** out of memory *)

(** the abstract store with an optional capacity: [AAdd] fails when (and only when) the store
    holds [k] entries *)
Definition afull (cap : option nat) (s : astate N) : Prop :=
  match cap with
  | None => False
  | Some k => exists l, NoDup l /\ (forall id, In id l <-> a_map s id <> None) /\ length l = k
  end.

Inductive cstep (cap : option nat) : astate N -> aop -> option ares -> astate N -> Prop :=
| cs_ok s o r s' : (forall h p, o = AAdd h p -> ~ afull cap s) -> rstep s o r s' -> cstep cap s o (Some r) s'
| cs_full s h p : afull cap s -> afind h (a_hs s) = None -> cstep cap s (AAdd h p) None s.

Lemma live_listing c s : IInv c s ->
  NoDup (live_slots c (i_al s)) /\ (forall id, In id (live_slots c (i_al s)) <-> a_map (iabs s) id <> None).
Proof.
  intros (HA & HL & _). split.
  - unfold live_slots. apply NoDup_filter. apply ids_nodup.
  - intros id. rewrite in_live_slots. cbn [iabs a_map]. rewrite <- (HL id). split; [tauto|]. intros E. split; [|exact E].
    destruct HA as (fs & ls & I). apply (w_nodes _ _ _ _ I). exact E.
Qed.

Lemma afull_iff c s : IInv c s -> (afull (Some (N.to_nat (cap c))) (iabs s) <-> nlive c (i_al s) = N.to_nat (cap c)).
Proof.
  intros HI. destruct (live_listing c s HI) as [Hnd Hin]. split.
  - intros (l & Hl & Hli & Hlen). unfold nlive. rewrite <- Hlen.
    apply Permutation_length. apply NoDup_Permutation; auto. intros x. rewrite Hin, Hli. tauto.
  - intros E. exists (live_slots c (i_al s)). auto.
Qed.

(** `add_node` fails ONLY IF the store is full (the abstract store with capacity [cap c] must fail
    too) OR free slots are parked in ANOTHER thread's local list / pre-allocated range (ALLOC's
    documented imprecision); the children are released either way *)
Theorem iadd_oom_cases c s t h h2 p cs s' lk :
  IInv c s -> istep c s (IAdd t h h2 p cs) = Some (s', IROom lk) ->
  cstep (Some (N.to_nat (cap c))) (iabs s) (AAdd h p) None (iabs s) \/
  exists u id, u <> t /\ In id (thread_slots c (i_al s) u).
Proof.
  intros HI H. destruct (istep_add_parts _ _ _ _ _ _ _ _ _ H) as ((Hpre & _) & al' & oid & pa & Hal & Hres).
  destruct oid as [id|]; [destruct Hres; discriminate|].
  pose proof HI as (HA & _).
  destruct (oom_only_parked _ _ _ _ _ HA Hal) as (_ & _ & Hpark).
  pose proof (free_count c (i_al s) HA) as Hfc.
  destruct (free_slots c (i_al s)) as [|x r] eqn:Ef.
  - left. apply cs_full; [|exact Hpre]. apply (afull_iff c s HI). cbn [length] in Hfc. lia.
  - right. destruct (Hpark x) as (u & Hu & Hin); [left; reflexivity|]. eauto.
Qed.

(** ... and it DOES fail when the store is full *)
Theorem iadd_full_oom c s t h h2 p cs s' r :
  IInv c s -> istep c s (IAdd t h h2 p cs) = Some (s', r) ->
  nlive c (i_al s) = N.to_nat (cap c) -> exists lk, r = IROom lk.
Proof.
  intros HI H Hfull. destruct (istep_add_parts _ _ _ _ _ _ _ _ _ H) as (_ & al' & oid & pa & Hal & Hres).
  destruct oid as [id|]; [exfalso | destruct Hres as (lk & _ & ->); eauto].
  pose proof HI as (HA & _). destruct (alloc_safe _ _ _ _ _ _ HA Hal) as (_ & Hin & _).
  pose proof (free_count c (i_al s) HA) as Hfc. destruct (free_slots c (i_al s)); [contradiction|]. cbn [length] in Hfc. lia.
Qed.

(** a successful `add_node` is a step of the abstract store with capacity [cap c] *)
Theorem iadd_capacity c s t h h2 p cs s' id pa :
  IInv c s -> istep c s (IAdd t h h2 p cs) = Some (s', IRAdded id pa) ->
  exists s1, cstep (Some (N.to_nat (cap c))) (iabs s) (AAdd h p) (Some ARAdded) s1 /\
             cstep (Some (N.to_nat (cap c))) s1 (AClone h h2) (Some (ARCount 2)) (iabs s').
Proof.
  intros HI H. destruct (istep_refines _ _ _ _ _ HI H eq_refl) as [_ R]. cbn [abs_ops abs_res] in R.
  inversion R as [|? ? ? s1 ? ? ? A1 R1]; subst. inversion R1 as [|? ? ? s2 ? ? ? A2 R2]; subst. inversion R2; subst.
  exists s1. split; apply cs_ok; auto; [|intros ? ? E; discriminate E].
  intros h0 p0 _ Hfull. apply (afull_iff c s HI) in Hfull.
  destruct (iadd_full_oom _ _ _ _ _ _ _ _ _ HI H Hfull) as [lk E]. discriminate.
Qed.

(** one thread, nothing parked elsewhere: `add_node` fails IFF the store is full *)
Theorem iadd_oom_single c s t l h h2 p cs s' r :
  IInv c s -> nth_error (th (i_al s)) t = Some l -> others_idle_p c (i_al s) t ->
  istep c s (IAdd t h h2 p cs) = Some (s', r) ->
  ((exists lk, r = IROom lk) <-> nlive c (i_al s) = N.to_nat (cap c)).
Proof.
  intros HI Hl Ho H. split; [|apply (iadd_full_oom _ _ _ _ _ _ _ _ _ HI H)].
  intros [lk ->]. pose proof HI as (HA & _). apply (proj1 (oom_single c (i_al s) t l HA Hl Ho)).
  destruct (istep_add_parts _ _ _ _ _ _ _ _ _ H) as (_ & al' & oid & pa & Hal & Hres).
  destruct oid as [id|]; [destruct Hres; discriminate | eauto].
Qed.

(** [cstep] spelled out *)
Lemma cstep_def cap s o r s' : cstep cap s o r s' <->
  ((exists r0, r = Some r0 /\ (forall h p, o = AAdd h p -> ~ afull cap s) /\ rstep s o r0 s') \/
   (exists h p, o = AAdd h p /\ r = None /\ s' = s /\ afull cap s /\ afind h (a_hs s) = None)).
Proof.
  split.
  - intros H. inversion H; subst; [left; eauto | right; eauto 10].
  - intros [(r0 & -> & Hf & Hst)|(h & p & -> & -> & -> & Hf & Hh)]; [apply cs_ok; auto | apply cs_full; auto].
Qed.
