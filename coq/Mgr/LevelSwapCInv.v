(** * C08, part B' — the node table after [level_swap_core_c] (BCDD kind)

    The BCDD instance of the loop invariant [Inv] and of the specification
    [Spec] of the table after the loop (Mgr/LevelSwapInv.v), for the fold of
    [rebuildc]: what a rewritten node ([rebuiltc]) and a new node ([goodnewc])
    look like, and that [mk2c] and [rebuildc] keep the invariant.  Edges carry complement tags;
    stored nodes have an untagged then-edge.  The tag-agnostic parts
    ([relabel], [depends], [dep_ids]: Mgr/LevelSwap.v; [ext]: Mgr/LevelSwapInv.v) are shared. *)

From Coq Require Import List NArith PArith Bool Arith Lia FMapPositive.
From OxiVerif Require Import DD.Table DD.TableProofs Mgr.SortOrder Mgr.SortOrderProofs
  Mgr.LevelSwap Mgr.LevelSwapBase Mgr.LevelSwapInv Mgr.LevelSwapC.
Import ListNotations.

(** ** complementing an edge *)

Lemma eref_xtag : forall e t, eref (xtag e t) = eref e.
Proof. reflexivity. Qed.

Lemma etag_xtag : forall e t, etag (xtag e t) = xorb (etag e) t.
Proof. reflexivity. Qed.

Lemma xtag_false : forall e, xtag e false = e.
Proof. intros [r t]. unfold xtag. simpl. rewrite xorb_false_r. reflexivity. Qed.

Lemma xtag_invol : forall e t, xtag (xtag e t) t = e.
Proof. intros [r b] t. unfold xtag. simpl. destruct b, t; reflexivity. Qed.

Lemma xtag_inj : forall a b t, xtag a t = xtag b t -> a = b.
Proof. intros a b t E. rewrite <- (xtag_invol a t), <- (xtag_invol b t), E. reflexivity. Qed.

Lemma xtag_self : forall e, etag (xtag e (etag e)) = false.
Proof. intros [r b]. simpl. apply xorb_nilpotent. Qed.

Section SwapC.
Variable s : snap.
Variable i : nat.
Hypothesis H : WF s.
Hypothesis Hk : s_kind s = KBcdd.
Hypothesis Hi : S i < nlevels s.

Notation isdep := (isdep s i).

(** ** stored BCDD nodes *)

Lemma bc_children : forall id nd, find_node s id = Some nd ->
  exists c0 c1, nchildren nd = [c0; c1] /\ c0 <> c1 /\ etag c0 = false.
Proof.
  intros id nd E. pose proof (wf_arity s H id nd E) as Ha. rewrite Hk in Ha. simpl in Ha.
  destruct (length2 _ _ Ha) as [c0 [c1 Hc]]. exists c0, c1. split; [exact Hc|].
  pose proof (wf_reduced s H id nd E) as Hr. unfold reduced in Hr. rewrite Hk, Hc in Hr.
  destruct Hr as [Hns [t [Ht Htag]]]. simpl in Ht. inversion Ht; subst t.
  split; [|exact Htag]. intros Heq. apply Hns. apply all_same_pair. exact Heq.
Qed.

(** an edge below both levels *)
Definition lowc (e : edge) : Prop := ref_ok s (eref e) /\ S i < rlevel s (eref e).

Lemma lowc_xtag : forall e t, lowc e -> lowc (xtag e t).
Proof. intros e t L. exact L. Qed.

(** ** [bcofc] *)

Lemma bcofc_skip : forall c b, rlevel s (eref c) <> S i -> bcofc s (S i) c b = c.
Proof.
  intros c b Hl. unfold bcofc. destruct (eref c) as [t|id] eqn:Er; [reflexivity|].
  simpl in Hl. destruct (find_node s id) as [nd|]; [|reflexivity].
  destruct (Nat.eqb_spec (nlevel nd) (S i)); [contradiction | reflexivity].
Qed.

Lemma bcofc_at : forall c cid cn g0 g1,
  eref c = RN cid -> find_node s cid = Some cn -> nlevel cn = S i -> nchildren cn = [g0; g1] ->
  bcofc s (S i) c 0 = xtag g0 (etag c) /\ bcofc s (S i) c 1 = xtag g1 (etag c).
Proof.
  intros c cid cn g0 g1 Er E Hl Hc. unfold bcofc. rewrite Er, E, Hl, Nat.eqb_refl, Hc. split; reflexivity.
Qed.

(** the two cases for a child [c] of a node of the upper level *)
Lemma child_cases_c : forall id nd c, find_node s id = Some nd -> nlevel nd = i -> In c (nchildren nd) ->
  (rlevel s (eref c) <> S i /\ lowc c /\ forall b, bcofc s (S i) c b = c)
  \/ (exists cid cn g0 g1, eref c = RN cid /\ find_node s cid = Some cn /\ nlevel cn = S i
        /\ nchildren cn = [g0; g1] /\ g0 <> g1 /\ etag g0 = false /\ lowc g0 /\ lowc g1
        /\ bcofc s (S i) c 0 = xtag g0 (etag c) /\ bcofc s (S i) c 1 = xtag g1 (etag c)).
Proof.
  intros id nd c E Hl Hc.
  destruct (wf_child s H id nd c E Hc) as [Hok Hlt].
  destruct (Nat.eq_dec (rlevel s (eref c)) (S i)) as [Heq|Hne].
  - right. destruct (eref c) as [t|cid] eqn:Er.
    { simpl in Heq. lia. }
    simpl in Heq. destruct (find_node s cid) as [cn|] eqn:Ec; [|lia].
    destruct (bc_children cid cn Ec) as [g0 [g1 [Hg [Hne Hg0]]]].
    exists cid, cn, g0, g1.
    assert (Hlow : forall g, In g (nchildren cn) -> lowc g).
    { intros g Hg'. destruct (wf_child s H cid cn g Ec Hg') as [A B]. split; [exact A | lia]. }
    assert (Er' : eref c = RN cid) by exact Er.
    destruct (bcofc_at c cid cn g0 g1 Er' Ec Heq Hg) as [B0 B1].
    assert (L0 : lowc g0) by (apply Hlow; rewrite Hg; simpl; auto).
    assert (L1 : lowc g1) by (apply Hlow; rewrite Hg; simpl; auto).
    split; [reflexivity|]. split; [exact Ec|]. split; [exact Heq|]. split; [exact Hg|].
    split; [exact Hne|]. split; [exact Hg0|]. split; [exact L0|]. split; [exact L1|].
    split; [exact B0 | exact B1].
  - left. split; [exact Hne|]. split.
    + split; [exact Hok | lia].
    + intros b. apply bcofc_skip. exact Hne.
Qed.

Lemma bcofc_low : forall id nd c b, find_node s id = Some nd -> nlevel nd = i -> In c (nchildren nd) ->
  b < 2 -> lowc (bcofc s (S i) c b).
Proof.
  intros id nd c b E Hl Hc Hb.
  destruct (child_cases_c id nd c E Hl Hc)
    as [[_ [Hlow Hb']]|[cid [cn [g0 [g1 [_ [_ [_ [_ [_ [_ [L0 [L1 [B0 B1]]]]]]]]]]]]]].
  - rewrite Hb'. exact Hlow.
  - destruct b as [|[|b]]; [rewrite B0; exact L0 | rewrite B1; exact L1 | lia].
Qed.

(** the pair of cofactors determines the child (including its tag) *)
Lemma bcofc_inj : forall id1 nd1 c id2 nd2 d,
  find_node s id1 = Some nd1 -> nlevel nd1 = i -> In c (nchildren nd1) ->
  find_node s id2 = Some nd2 -> nlevel nd2 = i -> In d (nchildren nd2) ->
  bcofc s (S i) c 0 = bcofc s (S i) d 0 -> bcofc s (S i) c 1 = bcofc s (S i) d 1 -> c = d.
Proof.
  intros id1 nd1 c id2 nd2 d E1 L1 Hc E2 L2 Hd B0 B1.
  destruct (child_cases_c id1 nd1 c E1 L1 Hc)
    as [[_ [_ Sc]]|[cid [cn [g0 [g1 [Ec [Fc [Lc [Cc [Nc [Tc [_ [_ [C0 C1]]]]]]]]]]]]]];
  destruct (child_cases_c id2 nd2 d E2 L2 Hd)
    as [[_ [_ Sd]]|[did [dn [h0 [h1 [Ed [Fd [Ld [Cd [Nd [Td [_ [_ [D0 D1]]]]]]]]]]]]]].
  - rewrite (Sc 0), (Sd 0) in B0. exact B0.
  - exfalso. rewrite (Sc 0), D0 in B0. rewrite (Sc 1), D1 in B1.
    apply Nd. apply (xtag_inj _ _ (etag d)). congruence.
  - exfalso. rewrite C0, (Sd 0) in B0. rewrite C1, (Sd 1) in B1.
    apply Nc. apply (xtag_inj _ _ (etag c)). congruence.
  - rewrite C0, D0 in B0. rewrite C1, D1 in B1.
    assert (Htag : etag c = etag d).
    { pose proof (f_equal etag B0) as Q. rewrite !etag_xtag, Tc, Td in Q.
      destruct (etag c), (etag d); simpl in Q; congruence. }
    rewrite Htag in B0, B1. apply xtag_inj in B0. apply xtag_inj in B1. subst h0 h1.
    assert (cid = did).
    { apply (wf_unique s H cid did cn dn Fc Fd); congruence. }
    subst did. apply edge_ext; [congruence | exact Htag].
Qed.

Lemma dep_not_both_c : forall id nd c0 c1, find_node s id = Some nd -> isdep nd -> nchildren nd = [c0; c1] ->
  ~ (bcofc s (S i) c0 0 = bcofc s (S i) c0 1 /\ bcofc s (S i) c1 0 = bcofc s (S i) c1 1).
Proof.
  intros id nd c0 c1 E [Hl Hd] Hc [A B].
  apply depends_spec in Hd. destruct Hd as [e [He Hle]]. rewrite Hc in He.
  assert (Hin0 : In c0 (nchildren nd)) by (rewrite Hc; simpl; auto).
  assert (Hin1 : In c1 (nchildren nd)) by (rewrite Hc; simpl; auto).
  destruct He as [<-|[<-|[]]].
  - destruct (child_cases_c id nd c0 E Hl Hin0)
      as [[Hne _]|[cid [cn [g0 [g1 [_ [_ [_ [_ [Hg [_ [_ [_ [B0 B1]]]]]]]]]]]]]].
    + contradiction.
    + apply Hg. apply (xtag_inj _ _ (etag c0)). congruence.
  - destruct (child_cases_c id nd c1 E Hl Hin1)
      as [[Hne _]|[cid [cn [g0 [g1 [_ [_ [_ [_ [Hg [_ [_ [_ [B0 B1]]]]]]]]]]]]]].
    + contradiction.
    + apply Hg. apply (xtag_inj _ _ (etag c1)). congruence.
Qed.

(** the then-cofactor of an untagged child is untagged *)
Lemma bcofc_then_untagged : forall id nd c, find_node s id = Some nd -> nlevel nd = i ->
  In c (nchildren nd) -> etag c = false -> etag (bcofc s (S i) c 0) = false.
Proof.
  intros id nd c E Hl Hc Ht.
  destruct (child_cases_c id nd c E Hl Hc)
    as [[_ [_ Sk]]|[cid [cn [g0 [g1 [_ [_ [_ [_ [_ [T0 [_ [_ [B0 _]]]]]]]]]]]]]].
  - rewrite Sk. exact Ht.
  - rewrite B0, etag_xtag, T0, Ht. reflexivity.
Qed.

(** ** the loop invariant *)

(** [e] is what [reduce] + lookup/insert on the new lower level returns for
    the children [x], [y]: the stored node has the tag of [x] xor-ed onto both
    children, the edge carries that tag *)
Definition repc (m : PositiveMap.t node) (x y e : edge) : Prop :=
  (x = y /\ e = x)
  \/ (x <> y /\ exists id nd, e = mkEdge (RN id) (etag x) /\ PositiveMap.find id m = Some nd
                              /\ nlevel nd = S i /\ nchildren nd = [xtag x (etag x); xtag y (etag x)]).

Definition goodnewc (nd : node) : Prop :=
  nlevel nd = S i /\ nstored nd = S i
  /\ exists x y, nchildren nd = [x; y] /\ x <> y /\ etag x = false /\ lowc x /\ lowc y.

Notation ext := (ext i).

Lemma repc_ext : forall m m' x y e, ext m m' -> repc m x y e -> repc m' x y e.
Proof.
  intros m m' x y e Hx [A|[A [id [nd [B [C [D F]]]]]]]; [left; exact A | right].
  split; [exact A|]. exists id, nd. repeat split; auto.
Qed.

Definition rebuiltc (m : PositiveMap.t node) (id : positive) (nd : node) : Prop :=
  exists c0 c1 e0 e1, nchildren nd = [c0; c1]
    /\ PositiveMap.find id m = Some (mkNode i [e0; e1] i (nrc nd))
    /\ repc m (bcofc s (S i) c0 0) (bcofc s (S i) c1 0) e0
    /\ repc m (bcofc s (S i) c0 1) (bcofc s (S i) c1 1) e1.

Lemma rebuiltc_find : forall m id nd, rebuiltc m id nd ->
  exists ch, PositiveMap.find id m = Some (mkNode i ch i (nrc nd)).
Proof. intros m id nd [c0 [c1 [e0 [e1 [_ [Hf _]]]]]]. eauto. Qed.

Lemma goodnewc_level : forall nd, goodnewc nd -> nlevel nd = S i /\ nstored nd = S i.
Proof. intros nd [A [B _]]. auto. Qed.

Lemma rebuiltc_add : forall m id nd k x,
  rebuiltc m id nd -> k <> id -> ext m (PositiveMap.add k x m) -> rebuiltc (PositiveMap.add k x m) id nd.
Proof.
  intros m id nd k x [c0 [c1 [e0 [e1 [Hc [Hf [R0 R1]]]]]]] Hne Hx. exists c0, c1, e0, e1.
  split; [exact Hc|]. split; [|split; eapply repc_ext; eauto].
  rewrite find_add. destruct (Pos.eqb_spec id k); [congruence | exact Hf].
Qed.

Notation InvC := (Inv s i goodnewc rebuiltc).

Lemma mk2c_inv : forall P st x y e st',
  InvC P st -> lowc x -> lowc y -> mk2c st (S i) x y = (e, st') ->
  InvC P st' /\ repc (fst st') x y e /\ ext (fst st) (fst st').
Proof.
  intros P [m nxt] x y e st' I Lx Ly. unfold mk2c. simpl fst. simpl snd.
  destruct (edge_eqb x y) eqn:Exy.
  { intros E. inversion E; subst. apply edge_eqb_eq in Exy.
    split; [exact I|]. split; [left; auto | apply ext_refl]. }
  assert (Hne : x <> y) by (intros ->; assert (edge_eqb y y = true) by (apply edge_eqb_eq; reflexivity); congruence).
  set (x' := xtag x (etag x)). set (y' := xtag y (etag x)).
  assert (Hne' : x' <> y') by (intros Q; apply Hne; exact (xtag_inj _ _ _ Q)).
  destruct (find_at m (S i) [x'; y']) as [id|] eqn:F.
  { intros E. inversion E; subst. destruct (find_at_some _ _ _ _ F) as [nd [A [B C]]].
    split; [exact I|]. split; [|apply ext_refl].
    right. split; [exact Hne|]. exists id, nd. auto. }
  intros E. inversion E; subst e st'. clear E. simpl fst. simpl snd.
  destruct (inv_insert s i goodnewc rebuiltc rebuiltc_add P m nxt [x'; y'] I F) as [I' Hext].
  { split; [reflexivity|]. split; [reflexivity|]. exists x', y'.
    split; [reflexivity|]. split; [exact Hne'|]. split; [apply xtag_self|].
    split; apply lowc_xtag; assumption. }
  split; [exact I'|]. split; [|exact Hext].
  right. split; [exact Hne|]. exists nxt, (mkNode (S i) [x'; y'] (S i) 0%N).
  split; [reflexivity|]. split; [|split; reflexivity].
  rewrite find_add, Pos.eqb_refl. reflexivity.
Qed.

Lemma rebuildc_inv : forall P st id nd,
  InvC P st -> find_node s id = Some nd -> isdep nd -> ~ In id P ->
  InvC (id :: P) (rebuildc s i st id).
Proof.
  intros P st id nd I E D Hn. unfold rebuildc. rewrite E.
  destruct (bc_children id nd E) as [c0 [c1 [Hc [Hne _]]]]. rewrite Hc.
  assert (Hin0 : In c0 (nchildren nd)) by (rewrite Hc; simpl; auto).
  assert (Hin1 : In c1 (nchildren nd)) by (rewrite Hc; simpl; auto).
  pose proof (proj1 D) as Dl.
  destruct (mk2c st (S i) (bcofc s (S i) c0 0) (bcofc s (S i) c1 0)) as [e0 st1] eqn:M0.
  destruct (mk2c st1 (S i) (bcofc s (S i) c0 1) (bcofc s (S i) c1 1)) as [e1 st2] eqn:M1.
  destruct (mk2c_inv P st _ _ e0 st1 I
              (bcofc_low id nd c0 0 E Dl Hin0 ltac:(lia)) (bcofc_low id nd c1 0 E Dl Hin1 ltac:(lia)) M0)
    as [I1 [R0 X1]].
  destruct (mk2c_inv P st1 _ _ e1 st2 I1
              (bcofc_low id nd c0 1 E Dl Hin0 ltac:(lia)) (bcofc_low id nd c1 1 E Dl Hin1 ltac:(lia)) M1)
    as [I2 [R1 X2]].
  pose proof (repc_ext _ _ _ _ _ X2 R0) as R0'.
  destruct (inv_rewrite s i goodnewc rebuiltc rebuiltc_add P st2 id nd (mkNode i [e0; e1] i (nrc nd))
              I2 E D Hn eq_refl) as [Hext Hfin].
  apply Hfin. exists c0, c1, e0, e1. split; [exact Hc|]. split.
  - rewrite find_add, Pos.eqb_refl. reflexivity.
  - split; eapply repc_ext; eauto.
Qed.

(** ** the table after the loop *)

Theorem swap_nodes_c_spec : Spec s i goodnewc rebuiltc (swap_nodes_c s i).
Proof. exact (loop_spec s i H goodnewc rebuiltc (rebuildc s i) rebuildc_inv). Qed.

End SwapC.
