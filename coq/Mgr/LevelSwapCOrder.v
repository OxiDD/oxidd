(** * C08, part B' — sequences of adjacent level swaps on BCDDs: [set_var_order_model_c]

    The BCDD counterparts of Mgr/LevelSwapOrder.v ([swaps_fold_c],
    [set_var_order_model_correct_c], [_respects_c], [_canonical_c]) and an
    example with complement edges. *)

From Coq Require Import List NArith PArith Bool Arith Lia FMapPositive Permutation.
From OxiVerif Require Import DD.Table DD.TableProofs DD.CanonBcdd Mgr.SortOrder Mgr.SortOrderProofs
  Mgr.LevelSwap Mgr.LevelSwapBase Mgr.LevelSwapProofs Mgr.LevelSwapOrder
  Mgr.LevelSwapC Mgr.LevelSwapCProofs.
Import ListNotations.

(** ** a sequence of swaps *)

Theorem swaps_fold_c : forall sw s,
  WF s -> s_kind s = KBcdd -> Forall (fun k => S k < nlevels s) sw ->
  let s' := fold_left level_swap_c sw s in
  WF s' /\ s_kind s' = s_kind s /\ nlevels s' = nlevels s /\ s_handles s' = s_handles s
  /\ s_l2v s' = replay sw (s_l2v s)
  /\ (forall h a, In h (s_handles s) ->
        eval_vars s' (snd h) a = eval_vars s (snd h) a /\ exists v, eval_vars s (snd h) a = Some v).
Proof.
  intros sw s H Hk Hsw.
  destruct (swaps_fold_gen level_swap_c (fun t => WF t /\ s_kind t = s_kind s) _ _ (fun _ => True) eval_vars)
    with (sw := sw) (s := s) as [[A B] [C [D [F [_ G]]]]]; auto.
  - intros t k [Ht Kt] Hk0. rewrite <- Kt in Hk.
    split; [split; [apply (level_swap_wf_c t k Ht Hk Hk0) | exact Kt]|]. repeat split.
    intros h a _ Hh. apply (level_swap_handles_vars_c t k Ht Hk Hk0 h a Hh).
  - split; [exact A|]. split; [exact B|]. split; [exact C|]. split; [exact D|]. split; [exact F|].
    intros h a Hh. split; [apply G; auto | apply handle_total; assumption].
Qed.

(** ** [set_var_order_model_c] *)

Section OrderC.
Variable s : snap.
Variable order : list nat.
Hypothesis H : WF s.
Hypothesis Hk : s_kind s = KBcdd.
(* the requests on which [set_var_order] does not panic: variables in range, none twice *)
Hypothesis Hnd : NoDup order.
Hypothesis Hr : Forall (fun v => v < nlevels s) order.

Let n := nlevels s.
Let levels := map (fun v => nth v (s_v2l s) 0) order.
Let target := sort_order n levels.
Let s' := set_var_order_model_c s order.

Theorem set_var_order_model_correct_c :
  WF s' /\ s_kind s' = s_kind s /\ nlevels s' = n /\ s_handles s' = s_handles s
  /\ (forall h a, In h (s_handles s) ->
        eval_vars s' (snd h) a = eval_vars s (snd h) a /\ exists v, eval_vars s (snd h) a = Some v)
  /\ (forall v, v < n -> nth v (s_v2l s') 0 = nth (nth v (s_v2l s) 0) target 0)
  /\ length (snd (bubble_sort target)) = inv target.
Proof.
  destruct (target_swaps s order H Hnd Hr) as [Hsw Hcount].
  destruct (swaps_fold_c _ s H Hk Hsw) as [A [B [C [D [F G]]]]].
  split; [exact A|]. split; [exact B|]. split; [exact C|]. split; [exact D|]. split; [exact G|].
  split; [|exact Hcount]. exact (target_positions s order H Hnd Hr _ A C F).
Qed.

(** the variables named in the request end up in the requested relative order *)
Theorem set_var_order_model_respects_c : forall a b, a < b < length order ->
  nth (nth a order 0) (s_v2l s') 0 < nth (nth b order 0) (s_v2l s') 0.
Proof.
  apply (target_respects s order H Hnd Hr). apply set_var_order_model_correct_c.
Qed.

(** the reordered diagram is canonical again (C01's theorem for BCDDs applies; it needs the
    manager's single terminal, which a swap does not touch) *)
Theorem set_var_order_model_canonical_c : terms_kind s -> forall h1 h2,
  In h1 (s_handles s) -> In h2 (s_handles s) ->
  (snd h1 = snd h2 <->
   forall c, choice_ok s' c -> sem_edge s' (snd h1) c = sem_edge s' (snd h2) c).
Proof.
  intros Ht h1 h2 H1 H2.
  destruct set_var_order_model_correct_c as [A [B [_ [D _]]]].
  assert (Hterms : forall sw t, s_terms (fold_left level_swap_c sw t) = s_terms t).
  { induction sw as [|k sw IH]; intros t; simpl; [reflexivity|]. rewrite IH. reflexivity. }
  apply (canon_bcdd_handles s' A).
  - rewrite B. exact Hk.
  - unfold terms_kind in *. rewrite B. unfold s', set_var_order_model_c. rewrite Hterms. exact Ht.
  - rewrite D. exact H1.
  - rewrite D. exact H2.
Qed.

End OrderC.

(** ** the hypotheses are satisfiable; complement tags take part

    three variables, one terminal (true; a complemented edge to it is false);
    handles: [x0] (node 2), [x0 -> x1] (node 4), [x2] (node 3).  Swapping levels
    0 and 1 rewrites node 4: its else-child becomes [reduce (not T, T)], i.e. the
    COMPLEMENTED edge to the node [T; not T] on the new lower level -- which is
    the node of [x0] that has just moved down ([old_upper.get] + [with_tag_owned]);
    node 1 ([x1]) loses its last reference and is removed. *)

Definition ex_t : edge := mkEdge (RT 0) false.
Definition ex_f : edge := mkEdge (RT 0) true.

Definition ex_swap_c : snap :=
  mkSnap KBcdd
    (PositiveMap.add 4%positive (mkNode 0 [mkEdge (RN 1) false; ex_t] 0 1)
    (PositiveMap.add 3%positive (mkNode 2 [ex_t; ex_f] 2 1)
    (PositiveMap.add 2%positive (mkNode 0 [ex_t; ex_f] 0 1)
    (PositiveMap.add 1%positive (mkNode 1 [ex_t; ex_f] 1 1)
       (PositiveMap.empty node)))))
    [(0%N, 1%N)]
    [0; 1; 2] [0; 1; 2]
    [(0%N, mkEdge (RN 2) false); (1%N, mkEdge (RN 4) false); (2%N, mkEdge (RN 3) false)].

Example ex_swap_c_all :
  WF ex_swap_c /\ s_kind ex_swap_c = KBcdd /\ terms_kind ex_swap_c /\ 1 < nlevels ex_swap_c
  /\ dep_ids ex_swap_c 0 = [4]%positive
  /\ find_node (level_swap_c ex_swap_c 0) 4 = Some (mkNode 0 [ex_t; mkEdge (RN 2) true] 0 1)
  /\ find_node (level_swap_c ex_swap_c 0) 2 = Some (mkNode 1 [ex_t; ex_f] 1 1)
  /\ find_node (level_swap_c ex_swap_c 0) 1 = None
  /\ s_v2l (set_var_order_model_c ex_swap_c [2; 1; 0]) = [2; 1; 0]
  /\ wf_b (set_var_order_model_c ex_swap_c [2; 1; 0]) = true.
Proof.
  split; [apply wf_b_spec; vm_compute; reflexivity|]. split; [reflexivity|].
  split; [apply terms_kind_b_spec; vm_compute; reflexivity|]. split; [vm_compute; lia|].
  repeat split; vm_compute; reflexivity.
Qed.
