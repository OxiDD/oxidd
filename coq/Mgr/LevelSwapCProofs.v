(** * C08, part B' — theorems about [level_swap_c] (Mgr/LevelSwapC.v), BCDD kind

    The BCDD counterparts of the theorems of Mgr/LevelSwapProofs.v: for a
    well-formed BCDD table [s] and adjacent levels [i], [i+1] the result of
    [level_swap_c s i] is well-formed, the maps are exchanged, handles and the
    other levels are untouched, and every edge stored before and after denotes
    the same function (over levels with the two entries exchanged; over the
    variables unchanged). *)

From Coq Require Import List NArith PArith Bool Arith Lia FMapPositive.
From OxiVerif Require Import DD.Table DD.TableProofs DD.CanonBcdd Mgr.SortOrder Mgr.SortOrderProofs
  Mgr.LevelSwap Mgr.LevelSwapBase Mgr.LevelSwapZSub Mgr.LevelSwapInv Mgr.LevelSwapSem Mgr.LevelSwapProofs
  Mgr.LevelSwapC Mgr.LevelSwapCInv Mgr.LevelSwapCWF Mgr.LevelSwapCSem.
Import ListNotations.

Lemma sem_edge_bcdd : forall s e c, s_kind s = KBcdd ->
  sem_edge s e c = option_map (fun b : bool => if b then 1%N else 0%N) (valc s e c).
Proof. intros s e c Hk. unfold sem_edge, valc. rewrite Hk. reflexivity. Qed.

Section SweepC.
Variable s : snap.
Variable i : nat.
Hypothesis H : WF s.
Hypothesis Hk : s_kind s = KBcdd.
Hypothesis Hi : S i < nlevels s.

Let s1 := level_swap_core_c s i.
Let s2 := level_swap_c s i.
Let H1 : WF s1 := core_wf_c s i H Hk Hi.

(** the nodes that [sweep] removes *)
Definition removed_c : list positive :=
  filter (fun id => negb (referenced (s_nodes s1) (s_handles s1) id)) (dropped_children s i).

Lemma find2_c : forall id,
  find_node s2 id = if existsb (Pos.eqb id) removed_c then None else find_node s1 id.
Proof. apply (find_without s1 removed_c). Qed.

Lemma find2_sub_c : forall id nd, find_node s2 id = Some nd -> find_node s1 id = Some nd.
Proof. intros id nd E. rewrite find2_c in E. destruct (existsb (Pos.eqb id) removed_c); [discriminate | exact E]. Qed.

Lemma sub12_c : subsnap s1 s2.
Proof. exact (swept_sub s i _ H1). Qed.

Lemma ref_ok2_1_c : forall r, ref_ok s2 r -> ref_ok s1 r.
Proof. intros [t|id] Ok; [exact Ok|]. destruct Ok as [nd E]. exists nd. apply find2_sub_c. exact E. Qed.

End SweepC.

(** ** the theorems *)

Section TheoremsC.
Variable s : snap.
Variable i : nat.
Hypothesis H : WF s.
Hypothesis Hk : s_kind s = KBcdd.
Hypothesis Hi : S i < nlevels s.

(** (a) well-formedness *)
Theorem level_swap_wf_c : WF (level_swap_c s i).
Proof. apply (subsnap_wf _ _ (core_wf_c s i H Hk Hi) (sub12_c s i H Hk Hi)). Qed.

Theorem level_swap_kind_c : s_kind (level_swap_c s i) = s_kind s.
Proof. reflexivity. Qed.

Theorem level_swap_nlevels_c : nlevels (level_swap_c s i) = nlevels s.
Proof. exact (LevelSwapCWF.nlevels1 s i). Qed.

(** the two maps are those of [s] with the levels [i] and [i+1] exchanged *)
Theorem level_swap_maps_c :
  s_l2v (level_swap_c s i) = swap_adj i (s_l2v s)
  /\ s_v2l (level_swap_c s i) = map (swap_idx i) (s_v2l s)
  /\ (forall l, nth_error (s_l2v (level_swap_c s i)) l = nth_error (s_l2v s) (swap_idx i l))
  /\ (forall v, nth_error (s_v2l (level_swap_c s i)) v = option_map (swap_idx i) (nth_error (s_v2l s) v)).
Proof.
  split; [reflexivity|]. split; [reflexivity|]. split.
  - intros l. apply nth_error_swap_adj. exact Hi.
  - intros v. apply nth_error_map.
Qed.

(** (c) handles *)
Theorem level_swap_handles_c : s_handles (level_swap_c s i) = s_handles s.
Proof. reflexivity. Qed.

Theorem level_swap_handle_ok_c : forall h, In h (s_handles s) -> ref_ok (level_swap_c s i) (eref (snd h)).
Proof. apply (sub_hok _ _ (sub12_c s i H Hk Hi)). Qed.

(** whatever a stored node of the result refers to is stored in the result *)
Theorem level_swap_child_ok_c : forall id nd e,
  find_node (level_swap_c s i) id = Some nd -> In e (nchildren nd) -> ref_ok (level_swap_c s i) (eref e).
Proof. apply (sub_child _ _ (sub12_c s i H Hk Hi)). Qed.

(** the only nodes that disappear: nodes of the old lower level that lost
    their last reference *)
Theorem level_swap_removed_only_c : forall id nd, find_node s id = Some nd ->
  find_node (level_swap_c s i) id = None ->
  nlevel nd = S i /\ In id (dropped_children s i)
  /\ referenced (swap_nodes_c s i) (s_handles s) id = false.
Proof. exact (swept_removed_only s i _ _ (rebuiltc_find s i) _ (swap_nodes_c_spec s i H Hk Hi)). Qed.

(** (d) the other levels are not touched *)
Theorem level_swap_untouched_c : forall id nd, find_node s id = Some nd ->
  nlevel nd <> i -> nlevel nd <> S i -> find_node (level_swap_c s i) id = Some nd.
Proof. exact (swept_untouched s i _ _ (rebuiltc_find s i) _ (swap_nodes_c_spec s i H Hk Hi)). Qed.

Theorem level_swap_untouched_rev_c : forall id nd, find_node (level_swap_c s i) id = Some nd ->
  nlevel nd <> i -> nlevel nd <> S i -> find_node s id = Some nd.
Proof. exact (swept_untouched_rev s i _ _ (rebuiltc_find s i) (goodnewc_level s i) _ (swap_nodes_c_spec s i H Hk Hi) (core_wf_c s i H Hk Hi)). Qed.

(** (b) preservation of the functions, over levels *)
Theorem level_swap_sem_levels_c : forall e c,
  ref_ok s (eref e) -> ref_ok (level_swap_c s i) (eref e) -> choice_ok s c ->
  sem_edge (level_swap_c s i) e (swap_choice i c) = sem_edge s e c.
Proof.
  intros e c Ok Ok2 Hc. rewrite !sem_edge_bcdd by (exact Hk). f_equal.
  unfold valc at 1. rewrite (subsnap_semc _ _ (sub12_c s i H Hk Hi) _ _ _ Ok2), level_swap_nlevels_c.
  rewrite <- (LevelSwapCWF.nlevels1 s i).
  apply (core_sem_c s i H Hk Hi (nlevels s) e c Ok Hc). lia.
Qed.

(** (b) headline: the function over the VARIABLES is unchanged *)
Theorem level_swap_sem_vars_c : forall e a,
  ref_ok s (eref e) -> ref_ok (level_swap_c s i) (eref e) ->
  eval_vars (level_swap_c s i) e a = eval_vars s e a.
Proof.
  intros e a Ok Ok2. unfold eval_vars.
  rewrite <- (level_swap_sem_levels_c e (asg_choice s a) Ok Ok2 (asg_choice_ok s a)).
  rewrite !sem_edge_bcdd by (exact Hk). f_equal. unfold valc.
  apply (semc_ext _ level_swap_wf_c). intros l _. apply (asg_choice_swapped s (level_swap_c s i) i a l Hi eq_refl).
Qed.

Theorem level_swap_handles_vars_c : forall h a, In h (s_handles s) ->
  eval_vars (level_swap_c s i) (snd h) a = eval_vars s (snd h) a
  /\ exists v, eval_vars s (snd h) a = Some v.
Proof.
  intros h a Hh. destruct (wf_handles s H h Hh) as [Ok _]. split.
  - apply level_swap_sem_vars_c; [exact Ok | apply level_swap_handle_ok_c; exact Hh].
  - apply handle_total; assumption.
Qed.

End TheoremsC.
