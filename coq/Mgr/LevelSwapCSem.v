(** * C08, part B' — [level_swap_core_c] preserves the function of every edge (BCDD kind)

    The BCDD counterpart of Mgr/LevelSwapSem.v for the complement-edge
    interpreter [semc]: for every edge [e] whose node is stored before the swap
    and every choice function [c], the value of [e] in the new table under [c]
    with the entries of the two levels exchanged is its value in the old table
    under [c]: the instance of [swapped_val] where the tag of the incoming edge
    complements the value of the chosen child. *)

From Coq Require Import List NArith PArith Bool Arith Lia FMapPositive.
From OxiVerif Require Import DD.Table DD.TableProofs DD.CanonBcdd Mgr.SortOrder Mgr.SortOrderProofs
  Mgr.LevelSwap Mgr.LevelSwapBase Mgr.LevelSwapInv Mgr.LevelSwapSem
  Mgr.LevelSwapC Mgr.LevelSwapCInv Mgr.LevelSwapCWF.
Import ListNotations.

(** the value of an edge with the standard fuel *)
Definition valc (s : snap) (e : edge) (c : nat -> nat) : option bool := semc s (S (nlevels s)) e c.

Lemma valc_term : forall s e c t, eref e = RT t -> valc s e c = Some (negb (etag e)).
Proof. intros s e c t Er. unfold valc. apply (semc_T _ _ _ _ t Er). Qed.

Lemma valc_node : forall s, WF s -> forall e id nd ch c,
  eref e = RN id -> find_node s id = Some nd ->
  nth_error (nchildren nd) (c (nlevel nd)) = Some ch ->
  valc s e c = option_map (xorb (etag e)) (valc s ch c).
Proof.
  intros s H e id nd ch c Er E He. unfold valc.
  rewrite (semc_S _ _ _ _ id Er), E, He.
  destruct (child_nth s H id nd _ ch E He) as [Ok Lt].
  pose proof (wf_level s H id nd E). pose proof (rlevel_le s H (eref ch)).
  rewrite (semc_fuel s H (nlevels s) (S (nlevels s)) ch) by (auto; lia).
  destruct (semc s (S (nlevels s)) ch c); reflexivity.
Qed.

(** complementing the edge complements the value *)
Lemma valc_xtag : forall s e t c, valc s (xtag e t) c = option_map (xorb t) (valc s e c).
Proof.
  intros s e t c. unfold valc. destruct (eref e) as [tm|id] eqn:Er.
  - assert (Er' : eref (xtag e t) = RT tm) by exact Er.
    rewrite (semc_T _ _ _ _ tm Er), (semc_T _ _ _ _ tm Er'). simpl.
    destruct (etag e), t; reflexivity.
  - assert (Er' : eref (xtag e t) = RN id) by exact Er.
    rewrite (semc_S _ _ _ _ id Er), (semc_S _ _ _ _ id Er').
    destruct (find_node s id) as [nd|]; [|reflexivity].
    destruct (nth_error (nchildren nd) (c (nlevel nd))) as [e'|]; [|reflexivity].
    destruct (semc s (nlevels s) e' c) as [b|]; [|reflexivity].
    simpl. destruct (etag e), t, b; reflexivity.
Qed.

Lemma omap_xorb_invol : forall t (x : option bool), option_map (xorb t) (option_map (xorb t) x) = x.
Proof. intros t [b|]; [|reflexivity]. simpl. destruct t, b; reflexivity. Qed.

Section SemC.
Variable s : snap.
Variable i : nat.
Hypothesis H : WF s.
Hypothesis Hk : s_kind s = KBcdd.
Hypothesis Hi : S i < nlevels s.

Let s1 := level_swap_core_c s i.
Let M := swap_nodes_c s i.
Let H1 : WF s1 := core_wf_c s i H Hk Hi.

Notation low := (lowc s i).
Notation isdep := (isdep s i).
Notation rep := (repc i).

(** the result of [reduce] + lookup on the new lower level, evaluated *)
Lemma repc_sem : forall x y e c' b, rep M x y e -> b < 2 -> c' (S i) = b ->
  valc s1 e c' = valc s1 (if Nat.eqb b 0 then x else y) c'.
Proof.
  intros x y e c' b [[A ->]|[A [id [nd [-> [E [L C]]]]]]] Hb Hc'.
  - subst y. destruct (Nat.eqb b 0); reflexivity.
  - set (tg := etag x) in *.
    assert (Hch : nth_error (nchildren nd) (c' (nlevel nd)) = Some (xtag (if Nat.eqb b 0 then x else y) tg)).
    { rewrite L, Hc', C. destruct b as [|[|b]]; [reflexivity | reflexivity | lia]. }
    rewrite (valc_node s1 H1 (mkEdge (RN id) tg) id nd _ c' eq_refl E Hch).
    simpl etag. rewrite valc_xtag. apply omap_xorb_invol.
Qed.

(** a child of a node of the upper level, evaluated: its cofactor w.r.t. the lower level *)
Lemma cofc_sem : forall id nd c cc b2, find_node s id = Some nd -> nlevel nd = i -> In c (nchildren nd) ->
  b2 < 2 -> cc (S i) = b2 -> valc s c cc = valc s (bcofc s (S i) c b2) cc.
Proof.
  intros id nd c cc b2 E Hl Hc Hb Hcc.
  destruct (child_cases_c s i H Hk Hi id nd c E Hl Hc)
    as [[_ [_ Sk]]|[cid [cn [g0 [g1 [Er [Ec [Lc [Cc [_ [_ [_ [_ [B0 B1]]]]]]]]]]]]]].
  - rewrite Sk. reflexivity.
  - assert (Hch : nth_error (nchildren cn) (cc (nlevel cn)) = Some (if Nat.eqb b2 0 then g0 else g1)).
    { rewrite Lc, Hcc, Cc. destruct b2 as [|[|b2]]; [reflexivity | reflexivity | lia]. }
    rewrite (valc_node s H c cid cn _ cc Er Ec Hch).
    destruct b2 as [|[|b2]]; [rewrite B0 | rewrite B1 | lia]; simpl; rewrite valc_xtag; reflexivity.
Qed.

Lemma rebuilt_sem_c : forall id nd nn c ca,
  find_node s id = Some nd -> isdep nd -> PositiveMap.find id M = Some nn -> choice_ok s c ->
  nth_error (nchildren nd) (c i) = Some ca ->
  exists eb x, nth_error (nchildren nn) (c (S i)) = Some eb
    /\ ref_ok s (eref x) /\ S i < rlevel s (eref x)
    /\ valc s1 eb (swap_choice i c) = valc s1 x (swap_choice i c)
    /\ valc s ca c = valc s x c.
Proof.
  intros id nd nn c ca E D Hf Hc Hca.
  destruct (spec_dep (swap_nodes_c_spec s i H Hk Hi) id nd E D) as [c0 [c1 [e0 [e1 [Hch [Hf' [R0 R1]]]]]]].
  change (PositiveMap.find id M = Some (mkNode i [e0; e1] i (nrc nd))) in Hf'.
  rewrite Hf in Hf'. inversion Hf'; subst nn. clear Hf'.
  assert (Ha : c i < 2) by (specialize (Hc i); rewrite Hk in Hc; exact Hc).
  assert (Hb : c (S i) < 2) by (specialize (Hc (S i)); rewrite Hk in Hc; exact Hc).
  assert (Hin : In ca (nchildren nd)) by (eapply nth_error_In; exact Hca).
  destruct (bcofc_low s i H Hk Hi id nd ca (c (S i)) E (proj1 D) Hin Hb) as [Okx Lx].
  assert (Hsw : swap_choice i c (S i) = c i) by (unfold swap_choice; rewrite swap_idx_Si; reflexivity).
  exists (if Nat.eqb (c (S i)) 0 then e0 else e1), (bcofc s (S i) ca (c (S i))).
  split; [|split; [exact Okx|split; [exact Lx|split; [|apply (cofc_sem id nd ca c _ E (proj1 D) Hin Hb eq_refl)]]]].
  - simpl. destruct (c (S i)) as [|[|b]]; [reflexivity | reflexivity | lia].
  - rewrite Hch in Hca.
    destruct (c (S i)) as [|[|b]]; [| |lia]; simpl Nat.eqb; cbv iota.
    + rewrite (repc_sem _ _ e0 _ (c i) R0 Ha Hsw).
      destruct (c i) as [|[|a]]; [| |lia]; inversion Hca; reflexivity.
    + rewrite (repc_sem _ _ e1 _ (c i) R1 Ha Hsw).
      destruct (c i) as [|[|a]]; [| |lia]; inversion Hca; reflexivity.
Qed.

Theorem core_sem_c : forall k e c, ref_ok s (eref e) -> choice_ok s c ->
  nlevels s - rlevel s (eref e) <= k ->
  valc s1 e (swap_choice i c) = valc s e c.
Proof.
  apply (swapped_val s i H _ _ (rebuiltc_find s i) M (swap_nodes_c_spec s i H Hk Hi)
           bool valc (fun e v => option_map (xorb (etag e)) v)).
  - intros e t c0 c' Er. rewrite (valc_term s1 e _ t Er), (valc_term s e _ t Er). reflexivity.
  - intros e id nd ch c0. apply (valc_node s H).
  - intros e id nd ch c0. apply (valc_node s1 H1).
  - exact rebuilt_sem_c.
Qed.

End SemC.
