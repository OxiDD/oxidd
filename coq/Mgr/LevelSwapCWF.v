(** * C08, part B' — [level_swap_core_c] keeps the table well-formed (BCDD kind)

    The BCDD counterpart of Mgr/LevelSwapWF.v, from the relational specification
    ([swap_nodes_c_spec], Mgr/LevelSwapCInv.v): ordered, reduced (children differ, then-edge
    untagged), per-level unique, maps inverse permutations. *)

From Coq Require Import List NArith PArith Bool Arith Lia FMapPositive.
From OxiVerif Require Import DD.Table DD.TableProofs Mgr.SortOrder Mgr.SortOrderProofs
  Mgr.LevelSwap Mgr.LevelSwapBase Mgr.LevelSwapInv Mgr.LevelSwapC Mgr.LevelSwapCInv.
Import ListNotations.

Section CoreC.
Variable s : snap.
Variable i : nat.
Hypothesis H : WF s.
Hypothesis Hk : s_kind s = KBcdd.
Hypothesis Hi : S i < nlevels s.

Let s1 := level_swap_core_c s i.
Let M := swap_nodes_c s i.
Let SP : Spec s i (goodnewc s i) (rebuiltc s i) M := swap_nodes_c_spec s i H Hk Hi.

Notation low := (lowc s i).
Notation isdep := (isdep s i).
Notation rep := (repc i).

Lemma find1 : forall id, find_node s1 id = PositiveMap.find id M.
Proof. reflexivity. Qed.

Lemma nlevels1 : nlevels s1 = nlevels s.
Proof. unfold nlevels, s1, level_swap_core_c. simpl. apply swap_adj_length. Qed.

Lemma term_val1 : forall t, term_val s1 t = term_val s t.
Proof. reflexivity. Qed.

Lemma kind1 : s_kind s1 = s_kind s.
Proof. reflexivity. Qed.

(** every stored node of the new table is of one of three sorts *)
Lemma find_cases : forall id nd', PositiveMap.find id M = Some nd' ->
  (exists nd, find_node s id = Some nd /\ ~ isdep nd /\ nd' = relabel s i nd)
  \/ (exists nd c0 c1 e0 e1, find_node s id = Some nd /\ isdep nd /\ nchildren nd = [c0; c1]
        /\ nd' = mkNode i [e0; e1] i (nrc nd)
        /\ rep M (bcofc s (S i) c0 0) (bcofc s (S i) c1 0) e0
        /\ rep M (bcofc s (S i) c0 1) (bcofc s (S i) c1 1) e1)
  \/ (find_node s id = None /\ goodnewc s i nd').
Proof.
  intros id nd' E.
  destruct (swapped_cases s i _ _ M SP id nd' E) as [C|[[nd [E0 [D R]]]|C]]; [left; exact C | | right; right; exact C].
  right. left. destruct R as [c0 [c1 [e0 [e1 [Hc [Hf [R0 R1]]]]]]].
  exists nd, c0, c1, e0, e1. rewrite E in Hf. inversion Hf; subst nd'. auto 10.
Qed.

Notation old_stays := (old_stays s i _ _ (rebuiltc_find s i) M SP).

Lemma ref_ok1 : forall r, ref_ok s r -> ref_ok s1 r.
Proof. exact (swapped_ref_ok s i _ _ (rebuiltc_find s i) M SP). Qed.

(** the level of an old reference in the new table *)
Lemma rlevel1 : forall r, ref_ok s r ->
  (rlevel s r = S i /\ rlevel s1 r = i)
  \/ (rlevel s r = i /\ (rlevel s1 r = i \/ rlevel s1 r = S i))
  \/ (rlevel s r <> i /\ rlevel s r <> S i /\ rlevel s1 r = rlevel s r).
Proof. exact (swapped_rlevel s i Hi _ _ (rebuiltc_find s i) M SP). Qed.

Lemma low1 : forall e, low e -> ref_ok s1 (eref e) /\ rlevel s1 (eref e) = rlevel s (eref e).
Proof.
  intros e [Hok Hl]. split; [apply ref_ok1; exact Hok|].
  destruct (rlevel1 _ Hok) as [[A _]|[[A _]|[_ [_ A]]]]; [lia | lia | exact A].
Qed.

(** what the result of [reduce] + lookup looks like in the new table *)
Lemma rep_props : forall x y e, rep M x y e -> low x -> low y ->
  ref_ok s1 (eref e) /\ etag e = etag x /\ S i <= rlevel s1 (eref e)
  /\ (x = y -> S i < rlevel s1 (eref e)) /\ (x <> y -> rlevel s1 (eref e) = S i).
Proof.
  intros x y e [[A ->]|[A [id [nd [-> [E [L C]]]]]]] Lx Ly.
  - destruct (low1 x Lx) as [B C]. destruct Lx as [_ Lv].
    split; [exact B|]. split; [reflexivity|]. split; [lia|]. split; [intros _; lia | contradiction].
  - simpl. split; [exists nd; exact E|]. split; [reflexivity|].
    rewrite find1, E, L. split; [lia|]. split; [contradiction | reflexivity].
Qed.

Lemma rep_inj : forall x y x' y' e, rep M x y e -> rep M x' y' e ->
  low x -> low y -> low x' -> low y' -> x = x' /\ y = y'.
Proof.
  intros x y x' y' e R R' Lx Ly Lx' Ly'.
  destruct (rep_props _ _ _ R Lx Ly) as [_ [_ [_ [A B]]]].
  destruct (rep_props _ _ _ R' Lx' Ly') as [_ [_ [_ [A' B']]]].
  destruct R as [[P ->]|[P [id [nd [-> [E [L C]]]]]]]; destruct R' as [[P' Q']|[P' [id' [nd' [Q' [E' [L' C']]]]]]].
  - subst. auto.
  - exfalso. specialize (A P). specialize (B' P'). lia.
  - exfalso. specialize (A' P'). specialize (B P). lia.
  - inversion Q' as [[Qid Qtag]]. subst id'. rewrite E in E'. inversion E'; subst nd'. rewrite C in C'.
    rewrite <- Qtag in C'.
    pose proof (f_equal (fun l => nth 0 l x) C') as Cx. pose proof (f_equal (fun l => nth 1 l x) C') as Cy.
    simpl in Cx, Cy. split; [exact (xtag_inj _ _ _ Cx) | exact (xtag_inj _ _ _ Cy)].
Qed.

(** ** well-formedness of the new table *)

Lemma wf1_child : forall id nd e, find_node s1 id = Some nd -> In e (nchildren nd) ->
  ref_ok s1 (eref e) /\ nlevel nd < rlevel s1 (eref e).
Proof.
  intros id nd' e E He. rewrite find1 in E.
  destruct (find_cases id nd' E) as [[nd [E0 [D ->]]]|[[nd [c0 [c1 [e0 [e1 [E0 [D [Hc [-> [R0 R1]]]]]]]]]]|[E0 G]]].
  - rewrite relabel_children in He.
    apply (swapped_child_old s i H Hi _ _ (rebuiltc_find s i) M SP id nd e E0 D He).
  - simpl in He. destruct D as [Dl Dd].
    assert (Hin0 : In c0 (nchildren nd)) by (rewrite Hc; simpl; auto).
    assert (Hin1 : In c1 (nchildren nd)) by (rewrite Hc; simpl; auto).
    pose proof (bcofc_low s i H Hk Hi id nd c0 0 E0 Dl Hin0 ltac:(lia)) as L00.
    pose proof (bcofc_low s i H Hk Hi id nd c1 0 E0 Dl Hin1 ltac:(lia)) as L10.
    pose proof (bcofc_low s i H Hk Hi id nd c0 1 E0 Dl Hin0 ltac:(lia)) as L01.
    pose proof (bcofc_low s i H Hk Hi id nd c1 1 E0 Dl Hin1 ltac:(lia)) as L11.
    destruct He as [<-|[<-|[]]].
    + destruct (rep_props _ _ _ R0 L00 L10) as [A [_ [B _]]]. split; [exact A | simpl; lia].
    + destruct (rep_props _ _ _ R1 L01 L11) as [A [_ [B _]]]. split; [exact A | simpl; lia].
  - destruct G as [Gl [_ [x [y [Gc [_ [_ [Lx Ly]]]]]]]]. rewrite Gc in He. rewrite Gl.
    destruct He as [<-|[<-|[]]].
    + destruct (low1 _ Lx) as [A B]. destruct Lx as [_ Lv]. split; [exact A | lia].
    + destruct (low1 _ Ly) as [A B]. destruct Ly as [_ Lv]. split; [exact A | lia].
Qed.

(** the four cofactors of a node to rewrite are below both levels *)
Lemma dep_lows : forall id nd c0 c1, find_node s id = Some nd -> isdep nd -> nchildren nd = [c0; c1] ->
  low (bcofc s (S i) c0 0) /\ low (bcofc s (S i) c1 0) /\ low (bcofc s (S i) c0 1) /\ low (bcofc s (S i) c1 1).
Proof.
  intros id nd c0 c1 E0 [Dl _] Hc.
  assert (Hin0 : In c0 (nchildren nd)) by (rewrite Hc; simpl; auto).
  assert (Hin1 : In c1 (nchildren nd)) by (rewrite Hc; simpl; auto).
  repeat split; eapply (bcofc_low s i H Hk Hi id nd); eauto.
Qed.

(** the rewritten children of a node determine its old children *)
Lemma dep_children_inj : forall id nd c0 c1 e0 e1 id' nd' d0 d1,
  find_node s id = Some nd -> isdep nd -> nchildren nd = [c0; c1] ->
  rep M (bcofc s (S i) c0 0) (bcofc s (S i) c1 0) e0 -> rep M (bcofc s (S i) c0 1) (bcofc s (S i) c1 1) e1 ->
  find_node s id' = Some nd' -> isdep nd' -> nchildren nd' = [d0; d1] ->
  rep M (bcofc s (S i) d0 0) (bcofc s (S i) d1 0) e0 -> rep M (bcofc s (S i) d0 1) (bcofc s (S i) d1 1) e1 ->
  c0 = d0 /\ c1 = d1.
Proof.
  intros id nd c0 c1 e0 e1 id' nd' d0 d1 E D Hc R0 R1 E' D' Hd Q0 Q1.
  destruct (dep_lows id nd c0 c1 E D Hc) as [A [B [C F]]].
  destruct (dep_lows id' nd' d0 d1 E' D' Hd) as [A' [B' [C' F']]].
  destruct (rep_inj _ _ _ _ _ R0 Q0 A B A' B') as [X0 Y0].
  destruct (rep_inj _ _ _ _ _ R1 Q1 C F C' F') as [X1 Y1].
  destruct D as [Dl _]. destruct D' as [Dl' _].
  split.
  - apply (bcofc_inj s i H Hk Hi id nd c0 id' nd' d0 E Dl ltac:(rewrite Hc; simpl; auto)
             E' Dl' ltac:(rewrite Hd; simpl; auto) X0 X1).
  - apply (bcofc_inj s i H Hk Hi id nd c1 id' nd' d1 E Dl ltac:(rewrite Hc; simpl; auto)
             E' Dl' ltac:(rewrite Hd; simpl; auto) Y0 Y1).
Qed.

(** one of the rewritten children lies on the new lower level *)
Lemma dep_touches : forall id nd c0 c1 e0 e1,
  find_node s id = Some nd -> isdep nd -> nchildren nd = [c0; c1] ->
  rep M (bcofc s (S i) c0 0) (bcofc s (S i) c1 0) e0 -> rep M (bcofc s (S i) c0 1) (bcofc s (S i) c1 1) e1 ->
  rlevel s1 (eref e0) = S i \/ rlevel s1 (eref e1) = S i.
Proof.
  intros id nd c0 c1 e0 e1 E D Hc R0 R1.
  destruct (dep_lows id nd c0 c1 E D Hc) as [A [B [C F]]].
  destruct (rep_props _ _ _ R0 A B) as [_ [_ [_ [_ N0]]]].
  destruct (rep_props _ _ _ R1 C F) as [_ [_ [_ [_ N1]]]].
  destruct (edge_eqb (bcofc s (S i) c0 0) (bcofc s (S i) c1 0)) eqn:Q0.
  2:{ left. apply N0. intros Heq. apply edge_eqb_eq in Heq. congruence. }
  destruct (edge_eqb (bcofc s (S i) c0 1) (bcofc s (S i) c1 1)) eqn:Q1.
  2:{ right. apply N1. intros Heq. apply edge_eqb_eq in Heq. congruence. }
  exfalso. apply edge_eqb_eq in Q0. apply edge_eqb_eq in Q1.
  destruct (bc_children s H Hk id nd E) as [a [b [Hab [Hne _]]]]. rewrite Hc in Hab.
  inversion Hab; subst a b. apply Hne. destruct D as [Dl _].
  apply (bcofc_inj s i H Hk Hi id nd c0 id nd c1 E Dl ltac:(rewrite Hc; simpl; auto)
           E Dl ltac:(rewrite Hc; simpl; auto) Q0 Q1).
Qed.

Lemma wf1_unique : forall id1 id2 n1 n2,
  find_node s1 id1 = Some n1 -> find_node s1 id2 = Some n2 ->
  nlevel n1 = nlevel n2 -> nchildren n1 = nchildren n2 -> id1 = id2.
Proof.
  apply (swapped_unique s i H Hi _ _ (rebuiltc_find s i) (goodnewc_level s i) M SP).
  - intros id nd nd' E D E'. destruct (spec_dep SP id nd E D) as [c0 [c1 [e0 [e1 [Hc [Hf [R0 R1]]]]]]].
    rewrite E' in Hf. inversion Hf; subst nd'.
    destruct (dep_touches id nd c0 c1 e0 e1 E D Hc R0 R1) as [T|T]; [exists e0 | exists e1];
      (split; [simpl; auto | exact T]).
  - intros id1 m1 n1 id2 m2 n2 F1 D1 E1 F2 D2 E2 Hch.
    destruct (spec_dep SP id1 m1 F1 D1) as [c0 [c1 [e0 [e1 [C1 [Hf1 [R0 R1]]]]]]].
    destruct (spec_dep SP id2 m2 F2 D2) as [d0 [d1 [f0 [f1 [C2 [Hf2 [Q0 Q1]]]]]]].
    rewrite E1 in Hf1. rewrite E2 in Hf2. inversion Hf1; subst n1. inversion Hf2; subst n2.
    simpl in Hch. inversion Hch; subst f0 f1.
    destruct (dep_children_inj id1 m1 c0 c1 e0 e1 id2 m2 d0 d1 F1 D1 C1 R0 R1 F2 D2 C2 Q0 Q1) as [X Y].
    congruence.
Qed.

Theorem core_wf_c : WF s1.
Proof.
  apply (swapped_wf s i H Hi _ _ (rebuiltc_find s i) (goodnewc_level s i) M SP); change (swapped s i M) with s1.
  - (* arity *)
    intros id nd' E. rewrite find1 in E. rewrite Hk. simpl.
    destruct (find_cases id nd' E) as [[nd [E0 [D ->]]]|[[nd [c0 [c1 [e0 [e1 [E0 [D [Hc [-> [R0 R1]]]]]]]]]]|[E0 G]]].
    + rewrite relabel_children. pose proof (wf_arity s H id nd E0) as A. rewrite Hk in A. exact A.
    + reflexivity.
    + destruct G as [_ [_ [x [y [Gc _]]]]]. rewrite Gc. reflexivity.
  - exact wf1_child.
  - (* reduced *)
    intros id nd' E. rewrite find1 in E. unfold reduced. rewrite kind1, Hk.
    destruct (find_cases id nd' E) as [[nd [E0 [D ->]]]|[[nd [c0 [c1 [e0 [e1 [E0 [D [Hc [-> [R0 R1]]]]]]]]]]|[E0 G]]].
    + rewrite relabel_children. pose proof (wf_reduced s H id nd E0) as R. unfold reduced in R.
      rewrite Hk in R. exact R.
    + destruct (dep_lows id nd c0 c1 E0 D Hc) as [A [B [C F]]]. simpl. split.
      * rewrite all_same_pair. intros ->.
        destruct (rep_inj _ _ _ _ _ R0 R1 A B C F) as [X Y].
        apply (dep_not_both_c s i H Hk Hi id nd c0 c1 E0 D Hc). auto.
      * exists e0. split; [reflexivity|].
        destruct (rep_props _ _ _ R0 A B) as [_ [T _]]. rewrite T.
        destruct (bc_children s H Hk id nd E0) as [a [b [Hab [_ Ta]]]]. rewrite Hc in Hab.
        inversion Hab; subst a b. destruct D as [Dl _].
        apply (bcofc_then_untagged s i H Hk Hi id nd c0 E0 Dl); [rewrite Hc; simpl; auto | exact Ta].
    + destruct G as [_ [_ [x [y [Gc [Gne [Tx _]]]]]]]. rewrite Gc. split.
      * rewrite all_same_pair. exact Gne.
      * exists x. split; [reflexivity | exact Tx].
  - (* tags: no constraint for BCDDs *)
    intros Hnb. exfalso. apply Hnb. exact Hk.
  - exact wf1_unique.
Qed.

End CoreC.
