(** * C08, part B — what the node table looks like after [level_swap_core]

    The loop of [level_swap] (a [fold_left] of [rebuild] over the nodes of the
    upper level that reference the lower level) is characterised by an
    invariant [Inv]; its instance at the end of the loop is the relational
    specification [Spec] of [swap_nodes s i], from which everything else
    (well-formedness, preservation of the functions) is derived in
    Mgr/LevelSwapWF.v and Mgr/LevelSwapProofs.v.

    [Inv], [Spec] and what follows from [Spec] for any kind of diagram
    (sections [Loop] and [After]) are stated over two predicates of the kind:
    what a rewritten node looks like and what a new node looks like.  The last
    section instantiates them for the BDD and MTBDD kinds ([bink]): binary
    nodes, no complement tags, reduction rule "both children equal"; the other
    kinds do so in Mgr/LevelSwap{C,T,Z}Inv.v. *)

From Coq Require Import List NArith PArith Bool Arith Lia FMapPositive.
From OxiVerif Require Import Base.ListFacts DD.Table DD.TableProofs Mgr.SortOrder Mgr.SortOrderProofs
  Mgr.LevelSwap Mgr.LevelSwapBase.
Import ListNotations.

Section Relabel.
Variable s : snap.
Variable i : nat.

(** a node of the upper level that references the lower level *)
Definition isdep (nd : node) : Prop := nlevel nd = i /\ depends s (S i) nd = true.

Lemma isdep_dec : forall nd, {isdep nd} + {~ isdep nd}.
Proof.
  intros nd. unfold isdep. destruct (Nat.eq_dec (nlevel nd) i) as [A|A].
  - destruct (depends s (S i) nd) eqn:D; [left; auto | right; intros [_ B]; discriminate].
  - right. intros [B _]. contradiction.
Qed.

Lemma depends_spec : forall nd,
  depends s (S i) nd = true <-> exists e, In e (nchildren nd) /\ rlevel s (eref e) = S i.
Proof.
  intros nd. unfold depends. rewrite existsb_exists. split; intros [e [A B]]; exists e; split; auto.
  - apply Nat.eqb_eq. exact B.
  - apply Nat.eqb_eq. exact B.
Qed.

Lemma depends_false : forall nd e,
  depends s (S i) nd = false -> In e (nchildren nd) -> rlevel s (eref e) <> S i.
Proof.
  intros nd e D He Hl. assert (depends s (S i) nd = true) by (apply depends_spec; eauto). congruence.
Qed.

(** ** [relabel] *)

Lemma relabel_children : forall nd, nchildren (relabel s i nd) = nchildren nd.
Proof.
  intros nd. unfold relabel. destruct (Nat.eqb (nlevel nd) (S i)); [reflexivity|].
  destruct (Nat.eqb (nlevel nd) i && negb (depends s (S i) nd)); reflexivity.
Qed.

Lemma relabel_rc : forall nd, nrc (relabel s i nd) = nrc nd.
Proof.
  intros nd. unfold relabel. destruct (Nat.eqb (nlevel nd) (S i)); [reflexivity|].
  destruct (Nat.eqb (nlevel nd) i && negb (depends s (S i) nd)); reflexivity.
Qed.

Lemma relabel_lower : forall nd, nlevel nd = S i -> relabel s i nd = set_level nd i.
Proof. intros nd Hl. unfold relabel. rewrite Hl, Nat.eqb_refl. reflexivity. Qed.

Lemma relabel_indep : forall nd, nlevel nd = i -> depends s (S i) nd = false ->
  relabel s i nd = set_level nd (S i).
Proof.
  intros nd Hl Hd. unfold relabel. rewrite Hl, Hd, Nat.eqb_refl.
  destruct (Nat.eqb_spec i (S i)) as [Q|]; [exfalso; exact (n_Sn i Q) | reflexivity].
Qed.

Lemma relabel_dep : forall nd, isdep nd -> relabel s i nd = nd.
Proof.
  intros nd [Hl Hd]. unfold relabel. rewrite Hl, Hd, Nat.eqb_refl.
  destruct (Nat.eqb_spec i (S i)) as [Q|]; [exfalso; exact (n_Sn i Q) | reflexivity].
Qed.

Lemma relabel_other : forall nd, nlevel nd <> i -> nlevel nd <> S i -> relabel s i nd = nd.
Proof.
  intros nd A B. unfold relabel.
  destruct (Nat.eqb_spec (nlevel nd) (S i)); [contradiction|].
  destruct (Nat.eqb_spec (nlevel nd) i); [contradiction | reflexivity].
Qed.

(** the level of a stored node after relabelling, by cases *)
Lemma relabel_cases : forall nd,
  (nlevel nd = S i /\ relabel s i nd = set_level nd i)
  \/ (nlevel nd = i /\ depends s (S i) nd = false /\ relabel s i nd = set_level nd (S i))
  \/ (isdep nd /\ relabel s i nd = nd)
  \/ (nlevel nd <> i /\ nlevel nd <> S i /\ relabel s i nd = nd).
Proof.
  intros nd. destruct (Nat.eq_dec (nlevel nd) (S i)) as [A|A].
  - left. split; [exact A | apply relabel_lower; exact A].
  - destruct (Nat.eq_dec (nlevel nd) i) as [B|B].
    + destruct (depends s (S i) nd) eqn:D.
      * right. right. left. split; [split; assumption | apply relabel_dep; split; assumption].
      * right. left. split; [exact B|]. split; [reflexivity | apply relabel_indep; assumption].
    + right. right. right. split; [exact B|]. split; [exact A | apply relabel_other; assumption].
Qed.

Lemma relabel_level_lower : forall nd, nlevel (relabel s i nd) = S i -> nlevel nd = i.
Proof.
  intros nd L.
  destruct (relabel_cases nd) as [[A R]|[[A [_ R]]|[[[A _] R]|[A [B R]]]]]; rewrite R in L; simpl in L;
    [lia | exact A | lia | contradiction].
Qed.

Lemma relabel_level_inj : forall m1 m2, ~ isdep m1 -> ~ isdep m2 ->
  nlevel (relabel s i m1) = nlevel (relabel s i m2) -> nlevel m1 = nlevel m2.
Proof.
  intros m1 m2 D1 D2 L.
  destruct (relabel_cases m1) as [[A R]|[[A [_ R]]|[[A R]|[A [B R]]]]]; [| |contradiction|];
    (destruct (relabel_cases m2) as [[A' R']|[[A' [_ R']]|[[A' R']|[A' [B' R']]]]]; [| |contradiction|]);
    rewrite R, R' in L; simpl in L; lia.
Qed.

(** nodes of the new lower level are never overwritten *)
Definition ext (m m' : PositiveMap.t node) : Prop :=
  forall id nd, PositiveMap.find id m = Some nd -> nlevel nd = S i -> PositiveMap.find id m' = Some nd.

Lemma ext_refl : forall m, ext m m.
Proof. intros m id nd E _. exact E. Qed.

Lemma ext_trans : forall a b c, ext a b -> ext b c -> ext a c.
Proof. intros a b c A B id nd E L. apply B; [apply A; assumption | exact L]. Qed.

(** the state before the loop *)
Definition st0 : tstate := (PositiveMap.map (relabel s i) (s_nodes s), fresh_id (s_nodes s)).

(** ** the nodes to rewrite *)

Lemma is_dep_spec : forall id nd, is_dep s i (id, nd) = true <-> isdep nd.
Proof.
  intros id nd. unfold is_dep, isdep. simpl. rewrite andb_true_iff, Nat.eqb_eq. tauto.
Qed.

Lemma dep_ids_spec : forall id,
  In id (dep_ids s i) <-> exists nd, find_node s id = Some nd /\ isdep nd.
Proof.
  intros id. unfold dep_ids. rewrite in_map_iff. split.
  - intros [[k nd] [Hkk Hin]]. simpl in Hkk. subst k. apply filter_In in Hin. destruct Hin as [A B].
    exists nd. split; [apply find_node_elements; exact A | apply (is_dep_spec id nd); exact B].
  - intros [nd [E D]]. exists (id, nd). split; [reflexivity|]. apply filter_In.
    split; [apply find_node_elements; exact E | apply is_dep_spec; exact D].
Qed.

Lemma dep_ids_nodup : NoDup (dep_ids s i).
Proof. unfold dep_ids. apply nodup_map_filter. apply elements_keys_nodup. Qed.

End Relabel.
(** ** the loop, for any kind of diagram

    The loops of the four kinds differ in what [reduce] does and in how many children a
    node has.  Common to all: a node to rewrite keeps its id and its level and gets new
    children ([rebuilt], given by the kind); every other old node is relabelled; a new
    node lies on the new lower level, under an unused id, and satisfies [good]; the new
    lower level stays free of duplicates because nodes are only inserted after a failed
    lookup. *)

Section Loop.
Variable s : snap.
Variable i : nat.
Hypothesis H : WF s.
Variable good : node -> Prop.
Variable rebuilt : PositiveMap.t node -> positive -> node -> Prop.
(* [rebuilt m id nd] speaks of the entry [id] and of nodes of the new lower level *)
Hypothesis rebuilt_add : forall m id nd k x,
  rebuilt m id nd -> k <> id -> ext i m (PositiveMap.add k x m) -> rebuilt (PositiveMap.add k x m) id nd.

Notation isdep := (isdep s i).
Notation ext := (ext i).

(** [P]: the nodes rewritten so far *)
Record Inv (P : list positive) (st : tstate) : Prop := mkInv {
  inv_old : forall id nd, find_node s id = Some nd -> ~ In id P ->
      PositiveMap.find id (fst st) = Some (relabel s i nd);
  inv_done : forall id, In id P ->
      exists nd, find_node s id = Some nd /\ isdep nd /\ rebuilt (fst st) id nd;
  inv_new : forall id nd, PositiveMap.find id (fst st) = Some nd -> find_node s id = None ->
      good nd /\ (id < snd st)%positive;
  inv_nxt : forall id nd, find_node s id = Some nd -> (id < snd st)%positive;
  inv_uniq : forall id1 id2 n1 n2,
      PositiveMap.find id1 (fst st) = Some n1 -> PositiveMap.find id2 (fst st) = Some n2 ->
      nlevel n1 = S i -> nlevel n2 = S i -> nchildren n1 = nchildren n2 -> id1 = id2
}.

Lemma inv_free : forall P st id, Inv P st -> (snd st <= id)%positive ->
  PositiveMap.find id (fst st) = None.
Proof.
  intros P st id I Hle. destruct (PositiveMap.find id (fst st)) as [nd|] eqn:E; [|reflexivity].
  exfalso. destruct (find_node s id) as [nd0|] eqn:E0.
  - pose proof (inv_nxt P st I id nd0 E0). lia.
  - destruct (inv_new P st I id nd E E0) as [_ Hlt]. lia.
Qed.

Lemma inv_init : Inv [] (st0 s i).
Proof.
  constructor; unfold st0; simpl.
  - intros id nd E _. rewrite find_map. unfold find_node in E. rewrite E. reflexivity.
  - intros id [].
  - intros id nd E E0. rewrite find_map in E. unfold find_node in E0. rewrite E0 in E. discriminate.
  - intros id nd E. apply (fresh_id_above _ _ _ E).
  - intros id1 id2 n1 n2 E1 E2 L1 L2 Hc. rewrite find_map in E1, E2.
    destruct (PositiveMap.find id1 (s_nodes s)) as [m1|] eqn:F1; [|discriminate].
    destruct (PositiveMap.find id2 (s_nodes s)) as [m2|] eqn:F2; [|discriminate].
    simpl in E1, E2. inversion E1; subst n1. inversion E2; subst n2. clear E1 E2.
    rewrite !relabel_children in Hc.
    apply (wf_unique s H id1 id2 m1 m2 F1 F2); [|exact Hc].
    rewrite (relabel_level_lower s i m1 L1), (relabel_level_lower s i m2 L2). reflexivity.
Qed.

(** [get_or_insert] on the new lower level after a failed lookup *)
Lemma inv_insert : forall P m nxt ch,
  Inv P (m, nxt) -> find_at m (S i) ch = None -> good (mkNode (S i) ch (S i) 0%N) ->
  Inv P (PositiveMap.add nxt (mkNode (S i) ch (S i) 0%N) m, Pos.succ nxt)
  /\ ext m (PositiveMap.add nxt (mkNode (S i) ch (S i) 0%N) m).
Proof.
  intros P m nxt ch I F G.
  pose proof (inv_free P (m, nxt) nxt I (Pos.le_refl _)) as Hfree. simpl in Hfree.
  assert (Hext : ext m (PositiveMap.add nxt (mkNode (S i) ch (S i) 0%N) m)).
  { intros id nd E _. rewrite find_add. destruct (Pos.eqb_spec id nxt); [congruence | exact E]. }
  split; [|exact Hext]. constructor; simpl fst; simpl snd.
  - intros id nd E Hn. rewrite find_add.
    pose proof (inv_nxt _ _ I id nd E) as Hlt. simpl in Hlt.
    destruct (Pos.eqb_spec id nxt); [lia|]. apply (inv_old _ _ I id nd E Hn).
  - intros id Hp. destruct (inv_done _ _ I id Hp) as [nd [E [D R]]].
    exists nd. split; [exact E|]. split; [exact D|].
    pose proof (inv_nxt _ _ I id nd E) as Hlt. simpl in Hlt.
    apply rebuilt_add; [exact R | lia | exact Hext].
  - intros id nd E E0. rewrite find_add in E. destruct (Pos.eqb_spec id nxt) as [->|Hn].
    + inversion E; subst nd. split; [exact G | lia].
    + destruct (inv_new _ _ I id nd E E0) as [G' Hlt]. simpl in Hlt. split; [exact G' | lia].
  - intros id nd E. pose proof (inv_nxt _ _ I id nd E) as Hlt. simpl in Hlt. lia.
  - intros id1 id2 n1 n2 E1 E2 L1 L2 Hc. rewrite find_add in E1, E2.
    destruct (Pos.eqb_spec id1 nxt) as [->|N1]; destruct (Pos.eqb_spec id2 nxt) as [->|N2].
    + reflexivity.
    + exfalso. inversion E1; subst n1. simpl in Hc.
      apply (find_at_none _ _ _ F id2 n2 E2 L2). congruence.
    + exfalso. inversion E2; subst n2. simpl in Hc.
      apply (find_at_none _ _ _ F id1 n1 E1 L1). congruence.
    + apply (inv_uniq _ _ I id1 id2 n1 n2 E1 E2 L1 L2 Hc).
Qed.

Lemma inv_rewrite : forall P st id nd nn,
  Inv P st -> find_node s id = Some nd -> isdep nd -> ~ In id P -> nlevel nn = i ->
  ext (fst st) (PositiveMap.add id nn (fst st))
  /\ (rebuilt (PositiveMap.add id nn (fst st)) id nd ->
      Inv (id :: P) (PositiveMap.add id nn (fst st), snd st)).
Proof.
  intros P st id nd nn I E D Hn Ln.
  pose proof (inv_old _ _ I id nd E Hn) as Hold. rewrite (relabel_dep s i nd D) in Hold.
  assert (Hext : ext (fst st) (PositiveMap.add id nn (fst st))).
  { intros k kd Ek Lk. rewrite find_add. destruct (Pos.eqb_spec k id) as [->|]; [|exact Ek].
    rewrite Hold in Ek. inversion Ek; subst kd. destruct D as [Dl _]. lia. }
  split; [exact Hext|]. intros R. constructor; simpl fst; simpl snd.
  - intros k kd Ek Hnk. rewrite find_add. destruct (Pos.eqb_spec k id) as [->|Nk].
    + exfalso. apply Hnk. left. reflexivity.
    + apply (inv_old _ _ I k kd Ek). intros Hp. apply Hnk. right. exact Hp.
  - intros k [<-|Hp].
    + exists nd. auto.
    + destruct (inv_done _ _ I k Hp) as [kd [Ek [Dk Rk]]].
      exists kd. split; [exact Ek|]. split; [exact Dk|].
      apply rebuilt_add; [exact Rk | | exact Hext]. intros ->. contradiction.
  - intros k kd Ek E0. rewrite find_add in Ek. destruct (Pos.eqb_spec k id) as [->|Nk]; [congruence|].
    apply (inv_new _ _ I k kd Ek E0).
  - intros k kd Ek. apply (inv_nxt _ _ I k kd Ek).
  - intros id1 id2 n1 n2 E1 E2 L1 L2 Hcc. rewrite find_add in E1, E2.
    destruct (Pos.eqb_spec id1 id) as [->|N1].
    { inversion E1; subst n1. lia. }
    destruct (Pos.eqb_spec id2 id) as [->|N2].
    { inversion E2; subst n2. lia. }
    apply (inv_uniq _ _ I id1 id2 n1 n2 E1 E2 L1 L2 Hcc).
Qed.

(** ** the table after the loop *)

Record Spec (m : PositiveMap.t node) : Prop := mkSpec {
  spec_old : forall id nd, find_node s id = Some nd -> ~ isdep nd ->
      PositiveMap.find id m = Some (relabel s i nd);
  spec_dep : forall id nd, find_node s id = Some nd -> isdep nd -> rebuilt m id nd;
  spec_new : forall id nd, PositiveMap.find id m = Some nd -> find_node s id = None -> good nd;
  spec_uniq : forall id1 id2 n1 n2,
      PositiveMap.find id1 m = Some n1 -> PositiveMap.find id2 m = Some n2 ->
      nlevel n1 = S i -> nlevel n2 = S i -> nchildren n1 = nchildren n2 -> id1 = id2
}.

Variable step : tstate -> positive -> tstate.
Hypothesis step_inv : forall P st id nd,
  Inv P st -> find_node s id = Some nd -> isdep nd -> ~ In id P -> Inv (id :: P) (step st id).

Lemma fold_inv : forall R P st,
  Inv P st -> NoDup R ->
  (forall id, In id R -> ~ In id P /\ exists nd, find_node s id = Some nd /\ isdep nd) ->
  Inv (rev R ++ P) (fold_left step R st).
Proof.
  induction R as [|id R IH]; intros P st I Hnd HR; simpl; [exact I|].
  inversion Hnd as [|? ? Hid HndR]; subst.
  destruct (HR id (or_introl eq_refl)) as [HnP [nd [E D]]].
  rewrite <- app_assoc. simpl. apply IH.
  - apply (step_inv P st id nd I E D HnP).
  - exact HndR.
  - intros k Hkin. destruct (HR k (or_intror Hkin)) as [A B]. split; [|exact B].
    intros [<-|Hp]; [contradiction | contradiction].
Qed.

Theorem loop_spec : Spec (fst (fold_left step (dep_ids s i) (st0 s i))).
Proof.
  pose proof (fold_inv (dep_ids s i) [] (st0 s i) inv_init (dep_ids_nodup s i)) as I.
  assert (HR : forall id, In id (dep_ids s i) ->
             ~ In id [] /\ exists nd, find_node s id = Some nd /\ isdep nd).
  { intros id Hin. split; [intros []|]. apply dep_ids_spec. exact Hin. }
  specialize (I HR). rewrite app_nil_r in I.
  set (st := fold_left step (dep_ids s i) (st0 s i)) in *.
  constructor.
  - intros id nd E Hnd. apply (inv_old _ _ I id nd E).
    intros Hin. apply in_rev in Hin. apply dep_ids_spec in Hin. destruct Hin as [nd' [E' D']].
    rewrite E in E'. inversion E'; subst nd'. contradiction.
  - intros id nd E D.
    assert (Hin : In id (rev (dep_ids s i))).
    { apply in_rev. rewrite rev_involutive. apply dep_ids_spec. eauto. }
    destruct (inv_done _ _ I id Hin) as [nd' [E' [_ R]]].
    rewrite E in E'. inversion E'; subst nd'. exact R.
  - intros id nd E E0. apply (inv_new _ _ I id nd E E0).
  - apply (inv_uniq _ _ I).
Qed.

End Loop.

Arguments inv_old {s i good rebuilt P st} _.
Arguments inv_done {s i good rebuilt P st} _.
Arguments inv_new {s i good rebuilt P st} _.
Arguments inv_nxt {s i good rebuilt P st} _.
Arguments inv_uniq {s i good rebuilt P st} _.
Arguments spec_old {s i good rebuilt m} _.
Arguments spec_dep {s i good rebuilt m} _.
Arguments spec_new {s i good rebuilt m} _.
Arguments spec_uniq {s i good rebuilt m} _.

Section After.
Variable s : snap.
Variable i : nat.
Hypothesis H : WF s.
Hypothesis Hi : S i < nlevels s.
Variable good : node -> Prop.
Variable rebuilt : PositiveMap.t node -> positive -> node -> Prop.
Hypothesis rebuilt_find : forall m id nd, rebuilt m id nd ->
  exists ch, PositiveMap.find id m = Some (mkNode i ch i (nrc nd)).
Hypothesis good_level : forall nd, good nd -> nlevel nd = S i /\ nstored nd = S i.
Variable M : PositiveMap.t node.
Hypothesis SP : Spec s i good rebuilt M.

Notation isdep := (isdep s i).

(** [level_swap_core] of every kind is [swapped] of its node table *)
Definition swapped : snap :=
  mkSnap (s_kind s) M (s_terms s) (map (swap_idx i) (s_v2l s)) (swap_adj i (s_l2v s)) (s_handles s).

Lemma swapped_nlevels : nlevels swapped = nlevels s.
Proof. unfold nlevels, swapped. simpl. apply swap_adj_length. Qed.

(** every stored node of the new table is of one of three sorts *)
Lemma swapped_cases : forall id nd', PositiveMap.find id M = Some nd' ->
  (exists nd, find_node s id = Some nd /\ ~ isdep nd /\ nd' = relabel s i nd)
  \/ (exists nd, find_node s id = Some nd /\ isdep nd /\ rebuilt M id nd)
  \/ (find_node s id = None /\ good nd').
Proof.
  intros id nd' E. destruct (find_node s id) as [nd|] eqn:E0.
  - destruct (isdep_dec s i nd) as [D|D].
    + right. left. exists nd. split; [reflexivity|]. split; [exact D | apply (spec_dep SP id nd E0 D)].
    + left. exists nd. pose proof (spec_old SP id nd E0 D) as Hf. rewrite E in Hf.
      inversion Hf. auto.
  - right. right. split; [reflexivity|]. apply (spec_new SP id nd' E E0).
Qed.

(** every id stored before is stored afterwards *)
Lemma old_stays : forall id nd, find_node s id = Some nd ->
  exists nd', PositiveMap.find id M = Some nd'
    /\ ((nlevel nd = S i /\ nlevel nd' = i)
        \/ (nlevel nd = i /\ (nlevel nd' = i \/ nlevel nd' = S i))
        \/ (nlevel nd <> i /\ nlevel nd <> S i /\ nd' = nd)).
Proof.
  intros id nd E. destruct (isdep_dec s i nd) as [D|D].
  - destruct (rebuilt_find _ _ _ (spec_dep SP id nd E D)) as [ch Hf].
    eexists. split; [exact Hf|]. right. left. destruct D as [Dl _]. simpl. auto.
  - exists (relabel s i nd). split; [apply (spec_old SP id nd E D)|].
    destruct (relabel_cases s i nd) as [[A R]|[[A [_ R]]|[[A R]|[A [B R]]]]]; rewrite R; simpl.
    + left. auto.
    + right. left. auto.
    + contradiction.
    + right. right. auto.
Qed.

Lemma swapped_ref_ok : forall r, ref_ok s r -> ref_ok swapped r.
Proof.
  intros [t|id] Hr; [exact Hr|]. destruct Hr as [nd E].
  destruct (old_stays id nd E) as [nd' [E' _]]. exists nd'. exact E'.
Qed.

(** the level of an old reference in the new table *)
Lemma swapped_rlevel : forall r, ref_ok s r ->
  (rlevel s r = S i /\ rlevel swapped r = i)
  \/ (rlevel s r = i /\ (rlevel swapped r = i \/ rlevel swapped r = S i))
  \/ (rlevel s r <> i /\ rlevel s r <> S i /\ rlevel swapped r = rlevel s r).
Proof.
  intros [t|id] Hr.
  - right. right. simpl. rewrite swapped_nlevels. repeat split; lia.
  - destruct Hr as [nd E]. destruct (old_stays id nd E) as [nd' [E' C]].
    unfold rlevel. change (find_node swapped id) with (PositiveMap.find id M). rewrite E', E.
    destruct C as [[A B]|[[A B]|[A [B ->]]]]; auto.
Qed.

Lemma swapped_child_old : forall id nd e, find_node s id = Some nd -> ~ isdep nd -> In e (nchildren nd) ->
  ref_ok swapped (eref e) /\ nlevel (relabel s i nd) < rlevel swapped (eref e).
Proof.
  intros id nd e E D He. destruct (wf_child s H id nd e E He) as [Hok Hlt].
  split; [apply swapped_ref_ok; exact Hok|].
  destruct (relabel_cases s i nd) as [[A R]|[[A [Dp R]]|[[A R]|[A [B R]]]]]; rewrite R; simpl.
  - destruct (swapped_rlevel _ Hok) as [[X Y]|[[X Y]|[X [Y Z]]]]; lia.
  - pose proof (depends_false s i nd e Dp He).
    destruct (swapped_rlevel _ Hok) as [[X Y]|[[X Y]|[X [Y Z]]]]; lia.
  - contradiction.
  - destruct (swapped_rlevel _ Hok) as [[X Y]|[[X Y]|[X [Y Z]]]]; lia.
Qed.

(** per-level uniqueness, from two facts about the rewritten nodes of the kind: one of the
    new children lies on the new lower level (so no relabelled node has the same children),
    and the new children determine the old ones *)
Lemma swapped_unique :
  (forall id nd nd', find_node s id = Some nd -> isdep nd -> PositiveMap.find id M = Some nd' ->
     exists e, In e (nchildren nd') /\ rlevel swapped (eref e) = S i) ->
  (forall id1 m1 n1 id2 m2 n2,
     find_node s id1 = Some m1 -> isdep m1 -> PositiveMap.find id1 M = Some n1 ->
     find_node s id2 = Some m2 -> isdep m2 -> PositiveMap.find id2 M = Some n2 ->
     nchildren n1 = nchildren n2 -> nchildren m1 = nchildren m2) ->
  forall id1 id2 n1 n2, find_node swapped id1 = Some n1 -> find_node swapped id2 = Some n2 ->
  nlevel n1 = nlevel n2 -> nchildren n1 = nchildren n2 -> id1 = id2.
Proof.
  intros Htouch Hinj id1 id2 n1 n2 E1 E2 Hl Hc.
  change (PositiveMap.find id1 M = Some n1) in E1. change (PositiveMap.find id2 M = Some n2) in E2.
  destruct (Nat.eq_dec (nlevel n1) (S i)) as [L1|L1].
  { apply (spec_uniq SP id1 id2 n1 n2 E1 E2 L1); [lia | exact Hc]. }
  assert (L2 : nlevel n2 <> S i) by lia.
  assert (Hmix : forall idm m idn mn n, find_node s idm = Some m -> ~ isdep m ->
            nlevel (relabel s i m) = i ->
            find_node s idn = Some mn -> isdep mn -> PositiveMap.find idn M = Some n ->
            nchildren m = nchildren n -> False).
  { intros idm m idn mn n Fm Dm Lm Fn Dn En Hch.
    destruct (Htouch idn mn n Fn Dn En) as [e [He T]]. rewrite <- Hch in He.
    destruct (wf_child s H idm m e Fm He) as [Ok Lt].
    destruct (relabel_cases s i m) as [[A R]|[[A [_ R]]|[[A R]|[A [B R]]]]]; rewrite R in Lm; simpl in Lm;
      try lia; try contradiction;
      destruct (swapped_rlevel _ Ok) as [[X Y]|[[X Y]|[X [Y Z]]]]; lia. }
  assert (Hlvl : forall id m n, find_node s id = Some m -> isdep m -> PositiveMap.find id M = Some n ->
            nlevel n = i).
  { intros id m n Fm Dm En. destruct (rebuilt_find _ _ _ (spec_dep SP id m Fm Dm)) as [ch Hf].
    rewrite En in Hf. inversion Hf. reflexivity. }
  destruct (swapped_cases id1 n1 E1) as [[m1 [F1 [D1 N1]]]|[[m1 [F1 [D1 _]]]|[_ G]]];
    [| |destruct (good_level _ G); contradiction];
  (destruct (swapped_cases id2 n2 E2) as [[m2 [F2 [D2 N2]]]|[[m2 [F2 [D2 _]]]|[_ G]]];
    [| |destruct (good_level _ G); contradiction]).
  - (* two relabelled nodes *)
    subst n1 n2. rewrite !relabel_children in Hc. apply (wf_unique s H id1 id2 m1 m2 F1 F2); [|exact Hc].
    apply (relabel_level_inj s i m1 m2 D1 D2 Hl).
  - exfalso. pose proof (Hlvl id2 m2 n2 F2 D2 E2) as Ln. subst n1. rewrite relabel_children in Hc.
    apply (Hmix id1 m1 id2 m2 n2 F1 D1 ltac:(lia) F2 D2 E2 Hc).
  - exfalso. pose proof (Hlvl id1 m1 n1 F1 D1 E1) as Ln. subst n2. rewrite relabel_children in Hc.
    apply (Hmix id2 m2 id1 m1 n1 F2 D2 ltac:(lia) F1 D1 E1 (eq_sym Hc)).
  - (* two rewritten nodes *)
    pose proof (Hinj id1 m1 n1 id2 m2 n2 F1 D1 E1 F2 D2 E2 Hc) as Hm.
    destruct D1 as [Dl1 _]. destruct D2 as [Dl2 _].
    apply (wf_unique s H id1 id2 m1 m2 F1 F2); congruence.
Qed.

(** what is left to the kind: arity, order, reducedness, tags and uniqueness of the nodes *)
Theorem swapped_wf :
  (forall id nd, find_node swapped id = Some nd -> length (nchildren nd) = arity (s_kind s)) ->
  (forall id nd e, find_node swapped id = Some nd -> In e (nchildren nd) ->
     ref_ok swapped (eref e) /\ nlevel nd < rlevel swapped (eref e)) ->
  (forall id nd, find_node swapped id = Some nd -> reduced swapped (nchildren nd)) ->
  (s_kind s <> KBcdd ->
     forall id nd e, find_node swapped id = Some nd -> In e (nchildren nd) -> etag e = false) ->
  (forall id1 id2 n1 n2, find_node swapped id1 = Some n1 -> find_node swapped id2 = Some n2 ->
     nlevel n1 = nlevel n2 -> nchildren n1 = nchildren n2 -> id1 = id2) ->
  WF swapped.
Proof.
  intros Harity Hchild Hred Htags Huniq. constructor; try assumption.
  - unfold swapped. simpl. rewrite map_length, swap_adj_length. apply (wf_perm_len s H).
  - apply swap_perm_v2l; [apply (wf_perm_len s H) | exact Hi | apply (wf_perm_v2l s H)].
  - apply swap_perm_l2v; [apply (wf_perm_len s H) | exact Hi | apply (wf_perm_l2v s H)].
  - (* stored level *)
    intros id nd' E.
    destruct (swapped_cases id nd' E) as [[nd [E0 [D ->]]]|[[nd [E0 [D R]]]|[E0 G]]].
    + destruct (relabel_cases s i nd) as [[A R]|[[A [_ R]]|[[A R]|[A [B R]]]]]; rewrite R; simpl; auto.
      * contradiction.
      * apply (wf_stored s H id nd E0).
    + destruct (rebuilt_find _ _ _ R) as [ch Hf]. unfold find_node in E. simpl s_nodes in E.
      rewrite E in Hf. inversion Hf. reflexivity.
    + destruct (good_level _ G). congruence.
  - (* level in range *)
    intros id nd' E. rewrite swapped_nlevels.
    destruct (swapped_cases id nd' E) as [[nd [E0 [D ->]]]|[[nd [E0 [D R]]]|[E0 G]]].
    + pose proof (wf_level s H id nd E0).
      destruct (relabel_cases s i nd) as [[A R]|[[A [_ R]]|[[A R]|[A [B R]]]]]; rewrite R; simpl; lia.
    + destruct (rebuilt_find _ _ _ R) as [ch Hf]. unfold find_node in E. simpl s_nodes in E.
      rewrite E in Hf. inversion Hf. simpl. lia.
    + destruct (good_level _ G). lia.
  - apply (wf_term_ids s H).
  - apply (wf_term_vals s H).
  - intros h Hh. destruct (wf_handles s H h Hh) as [A B]. split; [apply swapped_ref_ok; exact A | exact B].
Qed.

End After.

Section Swap.
Variable s : snap.
Variable i : nat.
Hypothesis H : WF s.
Hypothesis Hk : bink (s_kind s).
Hypothesis Hi : S i < nlevels s.

Notation isdep := (isdep s i).
Notation ext := (ext i).

(** ** stored BDD nodes *)

Lemma not_bcdd : s_kind s <> KBcdd.
Proof. apply bink_not_bcdd. exact Hk. Qed.

Lemma bdd_children : forall id nd, find_node s id = Some nd ->
  exists c0 c1, nchildren nd = [c0; c1] /\ c0 <> c1.
Proof.
  intros id nd E. pose proof (wf_arity s H id nd E) as Ha. rewrite (bink_arity _ Hk) in Ha.
  destruct (length2 _ _ Ha) as [c0 [c1 Hc]]. exists c0, c1. split; [exact Hc|].
  pose proof (wf_reduced s H id nd E) as Hr. apply (bink_reduced s _ Hk) in Hr. rewrite Hc in Hr.
  intros Heq. apply Hr. apply all_same_pair. exact Heq.
Qed.

Lemma bdd_tag : forall id nd e, find_node s id = Some nd -> In e (nchildren nd) -> etag e = false.
Proof. intros id nd e E He. exact (wf_tags s H not_bcdd id nd e E He). Qed.

(** an edge below both levels: what the cofactors of the cofactors are *)
Definition low (e : edge) : Prop :=
  ref_ok s (eref e) /\ etag e = false /\ S i < rlevel s (eref e).

(** ** [bcof] *)

Lemma bcof_skip : forall c b, rlevel s (eref c) <> S i -> bcof s (S i) c b = c.
Proof.
  intros c b Hl. unfold bcof. destruct (eref c) as [t|id] eqn:Er; [reflexivity|].
  simpl in Hl. destruct (find_node s id) as [nd|]; [|reflexivity].
  destruct (Nat.eqb_spec (nlevel nd) (S i)); [contradiction | reflexivity].
Qed.

Lemma bcof_at : forall c cid cn g0 g1,
  eref c = RN cid -> find_node s cid = Some cn -> nlevel cn = S i -> nchildren cn = [g0; g1] ->
  bcof s (S i) c 0 = g0 /\ bcof s (S i) c 1 = g1.
Proof.
  intros c cid cn g0 g1 Er E Hl Hc. unfold bcof. rewrite Er, E, Hl, Nat.eqb_refl, Hc. split; reflexivity.
Qed.

(** the two cases for a child [c] of a node of the upper level *)
Lemma child_cases : forall id nd c, find_node s id = Some nd -> nlevel nd = i -> In c (nchildren nd) ->
  (rlevel s (eref c) <> S i /\ low c /\ forall b, bcof s (S i) c b = c)
  \/ (exists cid cn g0 g1, c = mkEdge (RN cid) false /\ find_node s cid = Some cn /\ nlevel cn = S i
        /\ nchildren cn = [g0; g1] /\ g0 <> g1 /\ low g0 /\ low g1
        /\ bcof s (S i) c 0 = g0 /\ bcof s (S i) c 1 = g1).
Proof.
  intros id nd c E Hl Hc.
  destruct (wf_child s H id nd c E Hc) as [Hok Hlt]. pose proof (bdd_tag id nd c E Hc) as Ht.
  destruct (Nat.eq_dec (rlevel s (eref c)) (S i)) as [Heq|Hne].
  - right. destruct (eref c) as [t|cid] eqn:Er.
    { simpl in Heq. lia. }
    simpl in Heq. destruct (find_node s cid) as [cn|] eqn:Ec; [|lia].
    destruct (bdd_children cid cn Ec) as [g0 [g1 [Hg Hne]]].
    exists cid, cn, g0, g1.
    assert (Hlow : forall g, In g (nchildren cn) -> low g).
    { intros g Hg'. destruct (wf_child s H cid cn g Ec Hg') as [A B].
      split; [exact A|]. split; [exact (bdd_tag cid cn g Ec Hg') | lia]. }
    destruct (bcof_at c cid cn g0 g1 Er Ec Heq Hg) as [B0 B1].
    assert (Hce : c = mkEdge (RN cid) false).
    { destruct c as [r t]. simpl in *. subst. reflexivity. }
    assert (L0 : low g0) by (apply Hlow; rewrite Hg; simpl; auto).
    assert (L1 : low g1) by (apply Hlow; rewrite Hg; simpl; auto).
    split; [exact Hce|]. split; [exact Ec|]. split; [exact Heq|]. split; [exact Hg|].
    split; [exact Hne|]. split; [exact L0|]. split; [exact L1|]. split; [exact B0 | exact B1].
  - left. split; [exact Hne|]. split.
    + split; [exact Hok|]. split; [exact Ht | lia].
    + intros b. apply bcof_skip. exact Hne.
Qed.

Lemma bcof_low : forall id nd c b, find_node s id = Some nd -> nlevel nd = i -> In c (nchildren nd) ->
  b < 2 -> low (bcof s (S i) c b).
Proof.
  intros id nd c b E Hl Hc Hb.
  destruct (child_cases id nd c E Hl Hc) as [[_ [Hlow Hb']]|[cid [cn [g0 [g1 [_ [_ [_ [_ [_ [L0 [L1 [B0 B1]]]]]]]]]]]]].
  - rewrite Hb'. exact Hlow.
  - destruct b as [|[|b]]; [rewrite B0; exact L0 | rewrite B1; exact L1 | lia].
Qed.

(** the pair of cofactors determines the child *)
Lemma bcof_inj : forall id1 nd1 c id2 nd2 d,
  find_node s id1 = Some nd1 -> nlevel nd1 = i -> In c (nchildren nd1) ->
  find_node s id2 = Some nd2 -> nlevel nd2 = i -> In d (nchildren nd2) ->
  bcof s (S i) c 0 = bcof s (S i) d 0 -> bcof s (S i) c 1 = bcof s (S i) d 1 -> c = d.
Proof.
  intros id1 nd1 c id2 nd2 d E1 L1 Hc E2 L2 Hd B0 B1.
  destruct (child_cases id1 nd1 c E1 L1 Hc) as [[_ [_ Sc]]|[cid [cn [g0 [g1 [Ec [Fc [Lc [Cc [Nc [_ [_ [C0 C1]]]]]]]]]]]]];
  destruct (child_cases id2 nd2 d E2 L2 Hd) as [[_ [_ Sd]]|[did [dn [h0 [h1 [Ed [Fd [Ld [Cd [Nd [_ [_ [D0 D1]]]]]]]]]]]]].
  - rewrite (Sc 0), (Sd 0) in B0. exact B0.
  - exfalso. rewrite (Sc 0), D0 in B0. rewrite (Sc 1), D1 in B1. congruence.
  - exfalso. rewrite C0, (Sd 0) in B0. rewrite C1, (Sd 1) in B1. congruence.
  - rewrite C0, D0 in B0. rewrite C1, D1 in B1. subst g0 g1.
    assert (cid = did).
    { apply (wf_unique s H cid did cn dn Fc Fd); congruence. }
    subst. reflexivity.
Qed.

(** a node of the upper level that references the lower level has a cofactor
    pair that is not reduced away *)
Lemma dep_not_both : forall id nd c0 c1, find_node s id = Some nd -> isdep nd -> nchildren nd = [c0; c1] ->
  ~ (bcof s (S i) c0 0 = bcof s (S i) c0 1 /\ bcof s (S i) c1 0 = bcof s (S i) c1 1).
Proof.
  intros id nd c0 c1 E [Hl Hd] Hc [A B].
  apply depends_spec in Hd. destruct Hd as [e [He Hle]]. rewrite Hc in He.
  assert (Hin0 : In c0 (nchildren nd)) by (rewrite Hc; simpl; auto).
  assert (Hin1 : In c1 (nchildren nd)) by (rewrite Hc; simpl; auto).
  destruct He as [<-|[<-|[]]].
  - destruct (child_cases id nd c0 E Hl Hin0) as [[Hne _]|[cid [cn [g0 [g1 [_ [_ [_ [_ [Hg [_ [_ [B0 B1]]]]]]]]]]]]].
    + contradiction.
    + congruence.
  - destruct (child_cases id nd c1 E Hl Hin1) as [[Hne _]|[cid [cn [g0 [g1 [_ [_ [_ [_ [Hg [_ [_ [B0 B1]]]]]]]]]]]]].
    + contradiction.
    + congruence.
Qed.

(** ** the loop invariant *)

(** [e] is what [reduce] + lookup/insert on the new lower level returns for
    the children [x], [y] *)
Definition rep (m : PositiveMap.t node) (x y e : edge) : Prop :=
  (x = y /\ e = x)
  \/ (x <> y /\ exists id nd, e = mkEdge (RN id) false /\ PositiveMap.find id m = Some nd
                              /\ nlevel nd = S i /\ nchildren nd = [x; y]).

(** a node created by the swap *)
Definition goodnew (nd : node) : Prop :=
  nlevel nd = S i /\ nstored nd = S i
  /\ exists x y, nchildren nd = [x; y] /\ x <> y /\ low x /\ low y.

Lemma rep_ext : forall m m' x y e, ext m m' -> rep m x y e -> rep m' x y e.
Proof.
  intros m m' x y e Hx [A|[A [id [nd [B [C [D F]]]]]]]; [left; exact A | right].
  split; [exact A|]. exists id, nd. repeat split; auto.
Qed.

(** the rewritten form of a node of the upper level that references the lower level *)
Definition rebuilt (m : PositiveMap.t node) (id : positive) (nd : node) : Prop :=
  exists c0 c1 e0 e1, nchildren nd = [c0; c1]
    /\ PositiveMap.find id m = Some (mkNode i [e0; e1] i (nrc nd))
    /\ rep m (bcof s (S i) c0 0) (bcof s (S i) c1 0) e0
    /\ rep m (bcof s (S i) c0 1) (bcof s (S i) c1 1) e1.

Lemma rebuilt_find : forall m id nd, rebuilt m id nd ->
  exists ch, PositiveMap.find id m = Some (mkNode i ch i (nrc nd)).
Proof. intros m id nd [c0 [c1 [e0 [e1 [_ [Hf _]]]]]]. eauto. Qed.

Lemma goodnew_level : forall nd, goodnew nd -> nlevel nd = S i /\ nstored nd = S i.
Proof. intros nd [A [B _]]. auto. Qed.

Lemma rebuilt_add : forall m id nd k x,
  rebuilt m id nd -> k <> id -> ext m (PositiveMap.add k x m) -> rebuilt (PositiveMap.add k x m) id nd.
Proof.
  intros m id nd k x [c0 [c1 [e0 [e1 [Hc [Hf [R0 R1]]]]]]] Hne Hx. exists c0, c1, e0, e1.
  split; [exact Hc|]. split; [|split; eapply rep_ext; eauto].
  rewrite find_add. destruct (Pos.eqb_spec id k); [congruence | exact Hf].
Qed.

Notation Inv := (Inv s i goodnew rebuilt).

(** [reduce] + [get_or_insert] on the new lower level *)
Lemma mk2_inv : forall P st x y e st',
  Inv P st -> low x -> low y -> mk2 st (S i) x y = (e, st') ->
  Inv P st' /\ rep (fst st') x y e /\ ext (fst st) (fst st').
Proof.
  intros P [m nxt] x y e st' I Lx Ly. unfold mk2. simpl fst. simpl snd.
  destruct (edge_eqb x y) eqn:Exy.
  { intros E. inversion E; subst. apply edge_eqb_eq in Exy.
    split; [exact I|]. split; [left; auto | apply ext_refl]. }
  assert (Hne : x <> y) by (intros ->; assert (edge_eqb y y = true) by (apply edge_eqb_eq; reflexivity); congruence).
  destruct (find_at m (S i) [x; y]) as [id|] eqn:F.
  { intros E. inversion E; subst. destruct (find_at_some _ _ _ _ F) as [nd [A [B C]]].
    split; [exact I|]. split; [|apply ext_refl].
    right. split; [exact Hne|]. exists id, nd. auto. }
  intros E. inversion E; subst e st'. clear E. simpl fst. simpl snd.
  destruct (inv_insert s i goodnew rebuilt rebuilt_add P m nxt [x; y] I F) as [I' Hext].
  { split; [reflexivity|]. split; [reflexivity|]. exists x, y. auto. }
  split; [exact I'|]. split; [|exact Hext].
  right. split; [exact Hne|]. exists nxt, (mkNode (S i) [x; y] (S i) 0%N).
  split; [reflexivity|]. split; [|split; reflexivity].
  rewrite find_add, Pos.eqb_refl. reflexivity.
Qed.

(** one iteration of the loop *)
Lemma rebuild_inv : forall P st id nd,
  Inv P st -> find_node s id = Some nd -> isdep nd -> ~ In id P ->
  Inv (id :: P) (rebuild s i st id).
Proof.
  intros P st id nd I E D Hn. unfold rebuild. rewrite E.
  destruct (bdd_children id nd E) as [c0 [c1 [Hc Hne]]]. rewrite Hc.
  assert (Hin0 : In c0 (nchildren nd)) by (rewrite Hc; simpl; auto).
  assert (Hin1 : In c1 (nchildren nd)) by (rewrite Hc; simpl; auto).
  pose proof (proj1 D) as Dl.
  destruct (mk2 st (S i) (bcof s (S i) c0 0) (bcof s (S i) c1 0)) as [e0 st1] eqn:M0.
  destruct (mk2 st1 (S i) (bcof s (S i) c0 1) (bcof s (S i) c1 1)) as [e1 st2] eqn:M1.
  destruct (mk2_inv P st _ _ e0 st1 I
              (bcof_low id nd c0 0 E Dl Hin0 ltac:(lia)) (bcof_low id nd c1 0 E Dl Hin1 ltac:(lia)) M0)
    as [I1 [R0 X1]].
  destruct (mk2_inv P st1 _ _ e1 st2 I1
              (bcof_low id nd c0 1 E Dl Hin0 ltac:(lia)) (bcof_low id nd c1 1 E Dl Hin1 ltac:(lia)) M1)
    as [I2 [R1 X2]].
  pose proof (rep_ext _ _ _ _ _ X2 R0) as R0'.
  destruct (inv_rewrite s i goodnew rebuilt rebuilt_add P st2 id nd (mkNode i [e0; e1] i (nrc nd))
              I2 E D Hn eq_refl) as [Hext Hfin].
  apply Hfin. exists c0, c1, e0, e1. split; [exact Hc|]. split.
  - rewrite find_add, Pos.eqb_refl. reflexivity.
  - split; eapply rep_ext; eauto.
Qed.

Theorem swap_nodes_spec : Spec s i goodnew rebuilt (swap_nodes s i).
Proof. exact (loop_spec s i H goodnew rebuilt (rebuild s i) rebuild_inv). Qed.

End Swap.
