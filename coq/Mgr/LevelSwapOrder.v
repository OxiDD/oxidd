(** * C08, part B — a sequence of adjacent level swaps: [set_var_order_model]

    - [swaps_fold]: any sequence of in-range adjacent swaps keeps the table
      well-formed, keeps the handle list and every handle's function over the
      variables, and permutes [level_to_var] as [replay] does;
    - [set_var_order_model_correct]: the swaps reported by the (proved) bubble
      sort on the target order of [sort_order] bring every variable to the
      level [sort_order] assigns to its old level; their number is the number
      of inversions of the target order (minimal by
      [sort_order_min_inversions]);
    - [set_var_order_model_respects]: the variables named in the request end
      up in the requested relative order;
    - examples: the hypotheses are satisfiable, the loop creates and removes
      nodes on the example. *)

From Coq Require Import List NArith PArith Bool Arith Lia FMapPositive Permutation.
From OxiVerif Require Import DD.Table DD.TableProofs DD.Canon Mgr.SortOrder Mgr.SortOrderProofs
  Mgr.LevelSwap Mgr.LevelSwapBase Mgr.LevelSwapProofs.
Import ListNotations.

(** ** a sequence of swaps *)

Lemma swaps_fold_gen : forall (swap : snap -> nat -> snap) (Ok : snap -> Prop)
    (A V : Type) (P : A -> Prop) (ev : snap -> edge -> A -> option V),
  (forall s k, Ok s -> S k < nlevels s ->
     Ok (swap s k) /\ s_handles (swap s k) = s_handles s
     /\ s_l2v (swap s k) = swap_adj k (s_l2v s) /\ s_v2l (swap s k) = map (swap_idx k) (s_v2l s)
     /\ forall h a, P a -> In h (s_handles s) -> ev (swap s k) (snd h) a = ev s (snd h) a) ->
  forall sw s, Ok s -> Forall (fun k => S k < nlevels s) sw ->
  let s' := fold_left swap sw s in
  Ok s' /\ nlevels s' = nlevels s /\ s_handles s' = s_handles s
  /\ s_l2v s' = replay sw (s_l2v s)
  /\ s_v2l s' = fold_left (fun v k => map (swap_idx k) v) sw (s_v2l s)
  /\ forall h a, P a -> In h (s_handles s) -> ev s' (snd h) a = ev s (snd h) a.
Proof.
  intros swap Ok A V P ev Hstep. induction sw as [|k sw IH]; intros s O Hsw; simpl.
  - auto 10.
  - inversion Hsw as [|? ? Hk0 Hsw']; subst.
    destruct (Hstep s k O Hk0) as [O1 [D1 [L1 [V1 G1]]]].
    assert (N1 : nlevels (swap s k) = nlevels s) by (unfold nlevels; rewrite L1; apply swap_adj_length).
    destruct (IH (swap s k) O1) as [O' [C [D [F [F2 G]]]]]; [rewrite N1; exact Hsw'|].
    split; [exact O'|]. split; [rewrite C; exact N1|]. split; [rewrite D; exact D1|].
    split; [rewrite F, L1; reflexivity|]. split; [rewrite F2, V1; reflexivity|].
    intros h a Pa Hh. rewrite <- D1 in Hh. rewrite (G h a Pa Hh). rewrite D1 in Hh. apply G1; assumption.
Qed.

Theorem swaps_fold : forall sw s,
  WF s -> bink (s_kind s) -> Forall (fun k => S k < nlevels s) sw ->
  let s' := fold_left level_swap sw s in
  WF s' /\ s_kind s' = s_kind s /\ nlevels s' = nlevels s /\ s_handles s' = s_handles s
  /\ s_l2v s' = replay sw (s_l2v s)
  /\ (forall h a, In h (s_handles s) ->
        eval_vars s' (snd h) a = eval_vars s (snd h) a /\ exists v, eval_vars s (snd h) a = Some v).
Proof.
  intros sw s H Hk Hsw.
  destruct (swaps_fold_gen level_swap (fun t => WF t /\ s_kind t = s_kind s) _ _ (fun _ => True) eval_vars)
    with (sw := sw) (s := s) as [[A B] [C [D [F [_ G]]]]]; auto.
  - intros t k [Ht Kt] Hk0. rewrite <- Kt in Hk.
    split; [split; [apply (level_swap_wf t k Ht Hk Hk0) | exact Kt]|]. repeat split.
    intros h a _ Hh. apply (level_swap_handles_vars t k Ht Hk Hk0 h a Hh).
  - split; [exact A|]. split; [exact B|]. split; [exact C|]. split; [exact D|]. split; [exact F|].
    intros h a Hh. split; [apply G; auto | apply handle_total; assumption].
Qed.

Lemma nth_map_in : forall (A B : Type) (f : A -> B) l k d d',
  k < length l -> nth k (map f l) d' = f (nth k l d).
Proof.
  intros A B f l k d d' Hk. rewrite (nth_indep _ d' (f d)) by (rewrite map_length; exact Hk).
  apply map_nth.
Qed.

(** ** the variable/level maps as functions *)

Lemma wf_l2v_v2l : forall s l, WF s -> l < nlevels s ->
  nth l (s_l2v s) 0 < nlevels s /\ nth (nth l (s_l2v s) 0) (s_v2l s) 0 = l.
Proof.
  intros s l H Hl. destruct (wf_perm_l2v s H l Hl) as [v [A B]].
  rewrite (nth_error_nth _ _ 0 A), (nth_error_nth _ _ 0 B). split; [|reflexivity].
  unfold nlevels. rewrite <- (wf_perm_len s H). apply nth_error_Some. congruence.
Qed.

Lemma wf_v2l_l2v : forall s v, WF s -> v < nlevels s ->
  nth v (s_v2l s) 0 < nlevels s /\ nth (nth v (s_v2l s) 0) (s_l2v s) 0 = v.
Proof.
  intros s v H Hv. unfold nlevels in Hv. rewrite <- (wf_perm_len s H) in Hv.
  destruct (wf_perm_v2l s H v Hv) as [l [A B]].
  rewrite (nth_error_nth _ _ 0 A), (nth_error_nth _ _ 0 B). split; [|reflexivity].
  unfold nlevels. apply nth_error_Some. congruence.
Qed.

(** the levels of pairwise distinct variables form a valid request for [sort_order] *)
Lemma valid_order_levels : forall s order, WF s ->
  NoDup order -> Forall (fun v => v < nlevels s) order ->
  valid_order (nlevels s) (map (fun v => nth v (s_v2l s) 0) order).
Proof.
  intros s order H Hnd Hr. rewrite Forall_forall in Hr. split.
  - apply NoDup_map_inj_in; [|exact Hnd].
    intros a b Ha Hb Heq.
    destruct (wf_v2l_l2v s a H (Hr a Ha)) as [_ A]. destruct (wf_v2l_l2v s b H (Hr b Hb)) as [_ B].
    rewrite <- A, <- B, Heq. reflexivity.
  - apply Forall_forall. intros x Hx. apply in_map_iff in Hx. destruct Hx as [v [<- Hv]].
    apply (wf_v2l_l2v s v H (Hr v Hv)).
Qed.

(** ** a sorted permutation of [0, n) is [0, n) *)

Lemma sorted_perm_seq : forall l n, sorted l -> Permutation l (seq 0 n) -> l = seq 0 n.
Proof.
  intros l n Hs Hp.
  assert (Hlen : length l = n) by (rewrite (Permutation_length Hp); apply seq_length).
  assert (Hnd : NoDup l) by (apply (Permutation_NoDup (Permutation_sym Hp)); apply seq_NoDup).
  assert (Hlt : forall k, k < n -> nth k l 0 < n).
  { intros k Hk. assert (Hin : In (nth k l 0) (seq 0 n)).
    { apply (Permutation_in _ Hp). apply nth_In. lia. }
    apply in_seq in Hin. lia. }
  assert (Hstrict : forall a b, a < b < n -> nth a l 0 < nth b l 0).
  { intros a b Hab. pose proof (Hs a b ltac:(lia)) as Hle.
    destruct (Nat.eq_dec (nth a l 0) (nth b l 0)) as [Heq|]; [|lia].
    exfalso. apply (NoDup_nth l 0) in Heq; [lia | exact Hnd | lia | lia]. }
  assert (Hlow : forall k, k < n -> k <= nth k l 0).
  { induction k as [|k IHk]; intros Hk; [lia|].
    pose proof (Hstrict k (S k) ltac:(lia)). pose proof (IHk ltac:(lia)). lia. }
  assert (Hup : forall d, d < n -> nth (n - 1 - d) l 0 <= n - 1 - d).
  { induction d as [|d IHd]; intros Hd.
    - pose proof (Hlt (n - 1 - 0) ltac:(lia)). lia.
    - pose proof (Hstrict (n - 1 - S d) (n - 1 - d) ltac:(lia)). pose proof (IHd ltac:(lia)). lia. }
  apply (nth_ext _ _ 0 0); [rewrite seq_length; exact Hlen|].
  intros k Hk. rewrite Hlen in Hk. rewrite seq_nth by exact Hk. simpl.
  pose proof (Hlow k Hk). pose proof (Hup (n - 1 - k) ltac:(lia)).
  replace (n - 1 - (n - 1 - k)) with k in * by lia. lia.
Qed.

Section Request.
Variable s : snap.
Variable order : list nat.
Hypothesis H : WF s.
(* the requests on which [set_var_order] does not panic: variables in range, none twice *)
Hypothesis Hnd : NoDup order.
Hypothesis Hr : Forall (fun v => v < nlevels s) order.

Let n := nlevels s.
Let levels := map (fun v => nth v (s_v2l s) 0) order.
Let target := sort_order n levels.

Lemma target_swaps :
  Forall (fun k => S k < n) (snd (bubble_sort target))
  /\ length (snd (bubble_sort target)) = inv target.
Proof.
  pose proof (bubble_sort_correct target) as Hb.
  destruct (bubble_sort target) as [t' sw]. destruct Hb as [_ [_ [Hvalid [_ Hcount]]]].
  split; [|exact Hcount]. pose proof (valid_swaps_range target sw Hvalid) as R.
  unfold target in R at 1. rewrite sort_order_length in R by (apply valid_order_levels; assumption).
  exact R.
Qed.

Lemma target_positions : forall sf,
  WF sf -> nlevels sf = n -> s_l2v sf = replay (snd (bubble_sort target)) (s_l2v s) ->
  forall v, v < n -> nth v (s_v2l sf) 0 = nth (nth v (s_v2l s) 0) target 0.
Proof.
  intros sf A C F.
  assert (Hv : valid_order n levels) by (apply valid_order_levels; assumption).
  pose proof (bubble_sort_correct target) as Hb.
  destruct (bubble_sort target) as [t' sw]. simpl snd in F.
  destruct Hb as [Hsorted [Hperm [_ [Hreplay _]]]].
  assert (Hlen : length target = n) by (apply sort_order_length; exact Hv).
  (* the variable at the final level p is the one whose target position is p *)
  set (key := fun v => nth (nth v (s_v2l s) 0) target 0).
  assert (Hkey : map key (s_l2v s) = target).
  { apply (nth_ext _ _ 0 0); [rewrite map_length; symmetry; exact Hlen|].
    intros l Hl. rewrite map_length in Hl.
    rewrite (nth_indep _ 0 (key 0)) by (rewrite map_length; exact Hl).
    rewrite map_nth. unfold key. destruct (wf_l2v_v2l s l H Hl) as [_ X]. rewrite X. reflexivity. }
  assert (Ht' : t' = seq 0 n).
  { apply sorted_perm_seq; [exact Hsorted|].
    eapply Permutation_trans; [exact Hperm | apply sort_order_perm; exact Hv]. }
  assert (Hfinal : map key (s_l2v sf) = seq 0 n).
  { rewrite F, <- replay_map, Hkey, Hreplay. exact Ht'. }
  intros v Hvn. rewrite <- C in Hvn.
  destruct (wf_v2l_l2v sf v A Hvn) as [Plt Pinv].
  set (p := nth v (s_v2l sf) 0) in *.
  assert (Hp : nth p (map key (s_l2v sf)) 0 = p).
  { rewrite Hfinal. rewrite C in Plt. rewrite seq_nth by exact Plt. reflexivity. }
  rewrite (nth_indep _ 0 (key 0)) in Hp by (rewrite map_length; exact Plt).
  rewrite map_nth, Pinv in Hp. unfold key in Hp. symmetry. exact Hp.
Qed.

Lemma target_respects : forall sf,
  (forall v, v < n -> nth v (s_v2l sf) 0 = nth (nth v (s_v2l s) 0) target 0) ->
  forall a b, a < b < length order ->
  nth (nth a order 0) (s_v2l sf) 0 < nth (nth b order 0) (s_v2l sf) 0.
Proof.
  intros sf Hpos a b Hab.
  assert (Hin : forall k, k < length order ->
            nth k order 0 < n /\ nth k levels 0 = nth (nth k order 0) (s_v2l s) 0).
  { intros k Hkl. split.
    - rewrite Forall_forall in Hr. apply Hr. apply nth_In. exact Hkl.
    - unfold levels. apply (nth_map_in _ _ (fun v => nth v (s_v2l s) 0)). exact Hkl. }
  destruct (Hin a ltac:(lia)) as [Ra La]. destruct (Hin b ltac:(lia)) as [Rb Lb].
  rewrite (Hpos _ Ra), (Hpos _ Rb), <- La, <- Lb.
  apply (sort_order_respects n levels); [apply valid_order_levels; assumption|].
  unfold levels. rewrite map_length. exact Hab.
Qed.

End Request.

(** ** [set_var_order_model] *)

Section Order.
Variable s : snap.
Variable order : list nat.
Hypothesis H : WF s.
Hypothesis Hk : bink (s_kind s).
(* the requests on which [set_var_order] does not panic: variables in range, none twice *)
Hypothesis Hnd : NoDup order.
Hypothesis Hr : Forall (fun v => v < nlevels s) order.

Let n := nlevels s.
Let levels := map (fun v => nth v (s_v2l s) 0) order.
Let target := sort_order n levels.
Let s' := set_var_order_model s order.

Theorem set_var_order_model_correct :
  WF s' /\ s_kind s' = s_kind s /\ nlevels s' = n /\ s_handles s' = s_handles s
  /\ (forall h a, In h (s_handles s) ->
        eval_vars s' (snd h) a = eval_vars s (snd h) a /\ exists v, eval_vars s (snd h) a = Some v)
  /\ (forall v, v < n -> nth v (s_v2l s') 0 = nth (nth v (s_v2l s) 0) target 0)
  /\ length (snd (bubble_sort target)) = inv target.
Proof.
  destruct (target_swaps s order H Hnd Hr) as [Hsw Hcount].
  destruct (swaps_fold _ s H Hk Hsw) as [A [B [C [D [F G]]]]].
  split; [exact A|]. split; [exact B|]. split; [exact C|]. split; [exact D|]. split; [exact G|].
  split; [|exact Hcount]. exact (target_positions s order H Hnd Hr _ A C F).
Qed.

(** the variables named in the request end up in the requested relative order *)
Theorem set_var_order_model_respects : forall a b, a < b < length order ->
  nth (nth a order 0) (s_v2l s') 0 < nth (nth b order 0) (s_v2l s') 0.
Proof.
  apply (target_respects s order H Hnd Hr). apply set_var_order_model_correct.
Qed.

(** the reordered diagram is canonical again: two handles are the same edge iff
    they denote the same function (the theorem of C01 applies to the result) *)
Theorem set_var_order_model_canonical : forall h1 h2,
  In h1 (s_handles s) -> In h2 (s_handles s) ->
  (snd h1 = snd h2 <->
   forall c, choice_ok s' c -> sem_edge s' (snd h1) c = sem_edge s' (snd h2) c).
Proof.
  intros h1 h2 H1 H2.
  destruct set_var_order_model_correct as [A [B [_ [D _]]]].
  apply (canon_kary_handles s' A).
  - rewrite B. destruct Hk as [E|E]; rewrite E; split; discriminate.
  - rewrite D. exact H1.
  - rewrite D. exact H2.
Qed.

End Order.

(** ** the hypotheses are satisfiable; the loop does something *)

(** three variables, [h0 = x0 /\ x1 \/ x2] (node 3), [h1 = x0 /\ x1 /\ x2] (node 5) *)
Definition ex_e (r : ref) : edge := mkEdge r false.

Definition ex_swap : snap :=
  mkSnap KBdd
    (PositiveMap.add 5%positive (mkNode 0 [ex_e (RN 4); ex_e (RT 0)] 0 1)
    (PositiveMap.add 4%positive (mkNode 1 [ex_e (RN 1); ex_e (RT 0)] 1 1)
    (PositiveMap.add 3%positive (mkNode 0 [ex_e (RN 2); ex_e (RN 1)] 0 1)
    (PositiveMap.add 2%positive (mkNode 1 [ex_e (RT 1); ex_e (RN 1)] 1 1)
    (PositiveMap.add 1%positive (mkNode 2 [ex_e (RT 1); ex_e (RT 0)] 2 4)
       (PositiveMap.empty node))))))
    [(0%N, 0%N); (1%N, 1%N)]
    [0; 1; 2] [0; 1; 2]
    [(0%N, ex_e (RN 3)); (1%N, ex_e (RN 5))].

Example ex_swap_WF : WF ex_swap.
Proof. apply wf_b_spec. vm_compute. reflexivity. Qed.

Example ex_swap_hyps : s_kind ex_swap = KBdd /\ 1 < nlevels ex_swap /\ 2 < nlevels ex_swap.
Proof. vm_compute. repeat split; lia. Qed.

(** swapping levels 0 and 1: both nodes of level 0 reference level 1 and are
    rewritten (5 first: the loop follows the order of [PositiveMap.elements]),
    two nodes are created (ids 6, 7), the two old nodes of level 1 (ids 2, 4)
    lose their last reference and are removed, node 1 is not touched *)
Example ex_swap_result :
  let s' := level_swap ex_swap 0 in
  dep_ids ex_swap 0 = [5; 3]%positive
  /\ find_node s' 1 = Some (mkNode 2 [ex_e (RT 1); ex_e (RT 0)] 2 4)
  /\ find_node s' 2 = None /\ find_node s' 4 = None
  /\ find_node s' 3 = Some (mkNode 0 [ex_e (RN 7); ex_e (RN 1)] 0 1)
  /\ find_node s' 5 = Some (mkNode 0 [ex_e (RN 6); ex_e (RT 0)] 0 1)
  /\ find_node s' 6 = Some (mkNode 1 [ex_e (RN 1); ex_e (RT 0)] 1 0)
  /\ find_node s' 7 = Some (mkNode 1 [ex_e (RT 1); ex_e (RN 1)] 1 0)
  /\ PositiveMap.cardinal (s_nodes s') = 5
  /\ s_v2l s' = [1; 0; 2] /\ s_l2v s' = [1; 0; 2].
Proof. vm_compute. repeat split; reflexivity. Qed.

(** reversing the order: three swaps, the request is met *)
Example ex_order_result :
  snd (bubble_sort (sort_order 3 [2; 1; 0])) = [0; 1; 0]
  /\ s_v2l (set_var_order_model ex_swap [2; 1; 0]) = [2; 1; 0]
  /\ NoDup [2; 1; 0] /\ Forall (fun v => v < nlevels ex_swap) [2; 1; 0].
Proof.
  split; [vm_compute; reflexivity|]. split; [vm_compute; reflexivity|]. split.
  - repeat constructor; simpl; intuition lia.
  - repeat constructor; vm_compute; lia.
Qed.

(** the facts above in one statement (Props/C08.v) *)
Example ex_swap_all :
  WF ex_swap /\ bink (s_kind ex_swap) /\ 1 < nlevels ex_swap
  /\ dep_ids ex_swap 0 = [5; 3]%positive
  /\ find_node (level_swap ex_swap 0) 2 = None
  /\ find_node (level_swap ex_swap 0) 3 = Some (mkNode 0 [ex_e (RN 7); ex_e (RN 1)] 0 1)
  /\ find_node (level_swap ex_swap 0) 7 = Some (mkNode 1 [ex_e (RT 1); ex_e (RN 1)] 1 0)
  /\ s_v2l (set_var_order_model ex_swap [2; 1; 0]) = [2; 1; 0]
  /\ NoDup [2; 1; 0] /\ Forall (fun v => v < nlevels ex_swap) [2; 1; 0].
Proof.
  split; [exact ex_swap_WF|]. split; [left; reflexivity|]. split; [vm_compute; lia|].
  split; [vm_compute; reflexivity|]. split; [vm_compute; reflexivity|].
  split; [vm_compute; reflexivity|]. split; [vm_compute; reflexivity|].
  split; [vm_compute; reflexivity|]. exact (proj2 (proj2 ex_order_result)).
Qed.
