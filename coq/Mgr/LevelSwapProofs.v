(** * C08, part B — theorems about [level_swap] (Mgr/LevelSwap.v), BDD and MTBDD kinds ([bink])

    For a well-formed BDD or MTBDD table [s] and two adjacent levels [i], [i+1]:
    - [level_swap_wf]: the result is well-formed (ordered, reduced, per-level
      unique, variable/level maps inverse permutations), with
      [level_swap_maps]: the entries of the two levels exchanged;
    - [level_swap_sem_levels] / [level_swap_sem_vars]: every edge that is stored
      before and after denotes the same function (over LEVELS with the two
      entries exchanged; over VARIABLES unchanged), [level_swap_handles_vars]
      for the handles;
    - [level_swap_handles], [level_swap_handle_ok]: the handle list is
      unchanged and every handle's node keeps its id;
    - [level_swap_untouched] / [level_swap_untouched_rev]: nodes of the other
      levels keep id, level and children, and nothing appears there.
    The removal of unreferenced nodes ([sweep]) is dealt with here; the loop
    itself in Mgr/LevelSwapInv.v, LevelSwapWF.v, LevelSwapSem.v. *)

From Coq Require Import List NArith PArith Bool Arith Lia FMapPositive.
From OxiVerif Require Import DD.Table DD.TableProofs DD.Canon Mgr.SortOrder Mgr.SortOrderProofs
  Mgr.LevelSwap Mgr.LevelSwapBase Mgr.LevelSwapZSub Mgr.LevelSwapInv Mgr.LevelSwapWF Mgr.LevelSwapSem.
Import ListNotations.

(** ** functions over variables *)

(** the choice function (child index per level) of a variable assignment:
    child 0 = then-child when the level's variable is true *)
Definition asg_choice (s : snap) (a : nat -> bool) : nat -> nat :=
  fun l => if a (nth l (s_l2v s) 0) then 0 else 1.

(** the value of the edge [e] of the table [s] under the assignment [a] of the VARIABLES *)
Definition eval_vars (s : snap) (e : edge) (a : nat -> bool) : option N :=
  sem_edge s e (asg_choice s a).

Lemma asg_choice_ok : forall s a, choice_ok s (asg_choice s a).
Proof.
  intros s a l. unfold asg_choice.
  destruct (a (nth l (s_l2v s) 0)); destruct (s_kind s); simpl; lia.
Qed.

Lemma handle_total : forall s h a, WF s -> In h (s_handles s) -> exists v, eval_vars s (snd h) a = Some v.
Proof.
  intros s h a H Hh. destruct (wf_handles s H h Hh) as [Ok _]. unfold eval_vars.
  apply (sem_total s H); [exact Ok | apply asg_choice_ok].
Qed.

Lemma asg_choice_swapped : forall s s' i a l, S i < nlevels s -> s_l2v s' = swap_adj i (s_l2v s) ->
  asg_choice s' a l = swap_choice i (asg_choice s a) l.
Proof.
  intros s s' i a l Hi E. unfold asg_choice, swap_choice. rewrite E, nth_swap_adj by exact Hi.
  unfold swap_idx. destruct (Nat.eqb l i); [reflexivity|]. destruct (Nat.eqb l (S i)); reflexivity.
Qed.

Lemma sem_edge_bdd : forall s e c, bink (s_kind s) -> sem_edge s e c = semn s (eref e) c.
Proof. intros s e c Hk. unfold semn. apply bink_sem_edge. exact Hk. Qed.

Lemma dropped_lower : forall s i c, In c (dropped_children s i) -> rlevel s (RN c) = S i.
Proof.
  intros s i c Hin. unfold dropped_children in Hin. apply in_flat_map in Hin.
  destruct Hin as [id [_ Hin]]. destruct (find_node s id) as [nd|]; [|destruct Hin].
  apply in_flat_map in Hin. destruct Hin as [e [_ Hin]].
  destruct (eref e) as [t|c']; [destruct Hin|].
  destruct (Nat.eqb_spec (rlevel s (RN c')) (S i)) as [Q|Q]; [|destruct Hin].
  destruct Hin as [<-|[]]. exact Q.
Qed.

Section Swept.
Variable s : snap.
Variable i : nat.
Variable good : node -> Prop.
Variable rebuilt : PositiveMap.t node -> positive -> node -> Prop.
Hypothesis rebuilt_find : forall m id nd, rebuilt m id nd ->
  exists ch, PositiveMap.find id m = Some (mkNode i ch i (nrc nd)).
Hypothesis good_level : forall nd, good nd -> nlevel nd = S i /\ nstored nd = S i.
Variable M : PositiveMap.t node.
Hypothesis SP : Spec s i good rebuilt M.
Hypothesis H1 : WF (swapped s i M).

(** the nodes that [sweep] removes *)
Definition unreferenced : list positive :=
  filter (fun id => negb (referenced M (s_handles s) id)) (dropped_children s i).

(** [level_swap] of every kind is [swept] of its node table after the loop *)
Definition swept : snap := without (swapped s i M) unreferenced.

Lemma unreferenced_spec : forall id, In id unreferenced ->
  In id (dropped_children s i) /\ referenced M (s_handles s) id = false /\ rlevel s (RN id) = S i.
Proof.
  intros id Hin. apply filter_In in Hin. destruct Hin as [A B]. apply negb_true_iff in B.
  split; [exact A|]. split; [exact B | apply (dropped_lower s i); exact A].
Qed.

Lemma swept_sub : subsnap (swapped s i M) swept.
Proof. apply (without_subsnap _ unreferenced H1). intros id Hin. apply (unreferenced_spec id Hin). Qed.

(** the only nodes that disappear: nodes of the old lower level that lost their last reference *)
Lemma swept_removed_only : forall id nd, find_node s id = Some nd -> find_node swept id = None ->
  nlevel nd = S i /\ In id (dropped_children s i) /\ referenced M (s_handles s) id = false.
Proof.
  intros id nd E E2. unfold swept in E2. rewrite find_without in E2.
  destruct (existsb (Pos.eqb id) unreferenced) eqn:X.
  - apply existsb_pos_In in X. destruct (unreferenced_spec id X) as [A [B L]].
    simpl in L. rewrite E in L. auto.
  - exfalso. destruct (old_stays s i _ _ rebuilt_find M SP id nd E) as [nd' [E' _]].
    change (PositiveMap.find id M = None) in E2. congruence.
Qed.

Lemma swept_untouched : forall id nd, find_node s id = Some nd ->
  nlevel nd <> i -> nlevel nd <> S i -> find_node swept id = Some nd.
Proof.
  intros id nd E A B.
  destruct (old_stays s i _ _ rebuilt_find M SP id nd E) as [nd' [E' [[C _]|[[C _]|[_ [_ ->]]]]]]; try contradiction.
  unfold swept. rewrite find_without. destruct (existsb (Pos.eqb id) unreferenced) eqn:X; [|exact E'].
  apply existsb_pos_In in X. destruct (unreferenced_spec id X) as [_ [_ L]].
  simpl in L. rewrite E in L. contradiction.
Qed.

Lemma swept_untouched_rev : forall id nd, find_node swept id = Some nd ->
  nlevel nd <> i -> nlevel nd <> S i -> find_node s id = Some nd.
Proof.
  intros id nd E A B. apply (sub_nodes _ _ swept_sub) in E.
  destruct (swapped_cases s i _ _ M SP id nd E) as [[nd0 [E0 [D ->]]]|[[nd0 [E0 [D R]]]|[E0 G]]].
  - destruct (relabel_cases s i nd0) as [[X R]|[[X [_ R]]|[[X R]|[X [Y R]]]]]; rewrite R in *; simpl in *;
      try contradiction; try lia. exact E0.
  - destruct (rebuilt_find _ _ _ R) as [ch Hf]. change (PositiveMap.find id M = Some nd) in E.
    rewrite E in Hf. inversion Hf; subst nd. simpl in A. contradiction.
  - destruct (good_level _ G). contradiction.
Qed.

End Swept.

Section Sweep.
Variable s : snap.
Variable i : nat.
Hypothesis H : WF s.
Hypothesis Hk : bink (s_kind s).
Hypothesis Hi : S i < nlevels s.

Let s1 := level_swap_core s i.
Let s2 := level_swap s i.
Let H1 : WF s1 := core_wf s i H Hk Hi.

(** the nodes that [sweep] removes *)
Definition removed : list positive :=
  filter (fun id => negb (referenced (s_nodes s1) (s_handles s1) id)) (dropped_children s i).

Lemma find2 : forall id,
  find_node s2 id = if existsb (Pos.eqb id) removed then None else find_node s1 id.
Proof. apply (find_without s1 removed). Qed.

Lemma find2_sub : forall id nd, find_node s2 id = Some nd -> find_node s1 id = Some nd.
Proof. intros id nd E. rewrite find2 in E. destruct (existsb (Pos.eqb id) removed); [discriminate | exact E]. Qed.

Lemma sub12 : subsnap s1 s2.
Proof. exact (swept_sub s i _ H1). Qed.

Lemma ref_ok2_1 : forall r, ref_ok s2 r -> ref_ok s1 r.
Proof. intros [t|id] Ok; [exact Ok|]. destruct Ok as [nd E]. exists nd. apply find2_sub. exact E. Qed.

End Sweep.

(** ** the theorems *)

Section Theorems.
Variable s : snap.
Variable i : nat.
Hypothesis H : WF s.
Hypothesis Hk : bink (s_kind s).
Hypothesis Hi : S i < nlevels s.

(** (a) well-formedness *)
Theorem level_swap_wf : WF (level_swap s i).
Proof. apply (subsnap_wf _ _ (core_wf s i H Hk Hi) (sub12 s i H Hk Hi)). Qed.

Theorem level_swap_kind : s_kind (level_swap s i) = s_kind s.
Proof. reflexivity. Qed.

Theorem level_swap_nlevels : nlevels (level_swap s i) = nlevels s.
Proof. exact (nlevels1 s i). Qed.

(** the two maps are those of [s] with the levels [i] and [i+1] exchanged *)
Theorem level_swap_maps :
  s_l2v (level_swap s i) = swap_adj i (s_l2v s)
  /\ s_v2l (level_swap s i) = map (swap_idx i) (s_v2l s)
  /\ (forall l, nth_error (s_l2v (level_swap s i)) l = nth_error (s_l2v s) (swap_idx i l))
  /\ (forall v, nth_error (s_v2l (level_swap s i)) v = option_map (swap_idx i) (nth_error (s_v2l s) v)).
Proof.
  split; [reflexivity|]. split; [reflexivity|]. split.
  - intros l. apply nth_error_swap_adj. exact Hi.
  - intros v. apply nth_error_map.
Qed.

(** (c) handles *)
Theorem level_swap_handles : s_handles (level_swap s i) = s_handles s.
Proof. reflexivity. Qed.

Theorem level_swap_handle_ok : forall h, In h (s_handles s) -> ref_ok (level_swap s i) (eref (snd h)).
Proof. apply (sub_hok _ _ (sub12 s i H Hk Hi)). Qed.

(** whatever a stored node of the result refers to is stored in the result *)
Theorem level_swap_child_ok : forall id nd e,
  find_node (level_swap s i) id = Some nd -> In e (nchildren nd) -> ref_ok (level_swap s i) (eref e).
Proof. apply (sub_child _ _ (sub12 s i H Hk Hi)). Qed.

(** the only nodes that disappear: nodes of the old lower level that lost
    their last reference *)
Theorem level_swap_removed_only : forall id nd, find_node s id = Some nd ->
  find_node (level_swap s i) id = None ->
  nlevel nd = S i /\ In id (dropped_children s i)
  /\ referenced (swap_nodes s i) (s_handles s) id = false.
Proof. exact (swept_removed_only s i _ _ (rebuilt_find s i) _ (swap_nodes_spec s i H Hk Hi)). Qed.

(** (d) the other levels are not touched *)
Theorem level_swap_untouched : forall id nd, find_node s id = Some nd ->
  nlevel nd <> i -> nlevel nd <> S i -> find_node (level_swap s i) id = Some nd.
Proof. exact (swept_untouched s i _ _ (rebuilt_find s i) _ (swap_nodes_spec s i H Hk Hi)). Qed.

Theorem level_swap_untouched_rev : forall id nd, find_node (level_swap s i) id = Some nd ->
  nlevel nd <> i -> nlevel nd <> S i -> find_node s id = Some nd.
Proof. exact (swept_untouched_rev s i _ _ (rebuilt_find s i) (goodnew_level s i) _ (swap_nodes_spec s i H Hk Hi) (core_wf s i H Hk Hi)). Qed.

(** (b) preservation of the functions, over levels *)
Theorem level_swap_sem_levels : forall e c,
  ref_ok s (eref e) -> ref_ok (level_swap s i) (eref e) -> choice_ok s c ->
  sem_edge (level_swap s i) e (swap_choice i c) = sem_edge s e c.
Proof.
  intros e c Ok Ok2 Hc. rewrite !sem_edge_bdd by (exact Hk).
  unfold semn at 1. rewrite (subsnap_semk _ _ (sub12 s i H Hk Hi) _ _ _ Ok2), level_swap_nlevels.
  rewrite <- (nlevels1 s i).
  apply (core_sem s i H Hk Hi (nlevels s) (eref e) c Ok Hc). lia.
Qed.

(** (b) headline: the function over the VARIABLES is unchanged *)
Theorem level_swap_sem_vars : forall e a,
  ref_ok s (eref e) -> ref_ok (level_swap s i) (eref e) ->
  eval_vars (level_swap s i) e a = eval_vars s e a.
Proof.
  intros e a Ok Ok2. unfold eval_vars.
  rewrite <- (level_swap_sem_levels e (asg_choice s a) Ok Ok2 (asg_choice_ok s a)).
  rewrite !sem_edge_bdd by (exact Hk). unfold semn.
  apply (semk_ext _ level_swap_wf). intros l _. apply (asg_choice_swapped s (level_swap s i) i a l Hi eq_refl).
Qed.

Theorem level_swap_handles_vars : forall h a, In h (s_handles s) ->
  eval_vars (level_swap s i) (snd h) a = eval_vars s (snd h) a
  /\ exists v, eval_vars s (snd h) a = Some v.
Proof.
  intros h a Hh. destruct (wf_handles s H h Hh) as [Ok _]. split.
  - apply level_swap_sem_vars; [exact Ok | apply level_swap_handle_ok; exact Hh].
  - apply handle_total; assumption.
Qed.

End Theorems.
