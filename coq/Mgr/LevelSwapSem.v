(** * C08, part B — [level_swap_core] preserves the function of every edge

    For every reference [r] stored before the swap and every choice function
    [c] (child index per LEVEL): the interpretation of [r] in the new table
    under [c] with the entries of the two levels exchanged equals the
    interpretation in the old table under [c].  The induction is done once, for any
    interpreter that follows one child per node ([swapped_val]); the BDD and MTBDD
    kinds ([bink]) supply the rewritten node here, the BCDD and TDD kinds in
    Mgr/LevelSwap{C,T}Sem.v.  (The ZBDD interpreter also looks at the levels an edge
    skips and has its own induction, Mgr/LevelSwapZSem.v.) *)

From Coq Require Import List NArith PArith Bool Arith Lia FMapPositive.
From OxiVerif Require Import DD.Table DD.TableProofs DD.Canon Mgr.SortOrder Mgr.SortOrderProofs
  Mgr.LevelSwap Mgr.LevelSwapBase Mgr.LevelSwapInv Mgr.LevelSwapWF.
Import ListNotations.

(** the choice function with the entries of levels [i] and [i+1] exchanged *)
Definition swap_choice (i : nat) (c : nat -> nat) : nat -> nat := fun l => c (swap_idx i l).

Lemma swap_choice_ok : forall s s' i c, s_kind s' = s_kind s -> choice_ok s c -> choice_ok s' (swap_choice i c).
Proof. intros s s' i c Hk Hc l. unfold swap_choice. rewrite Hk. apply Hc. Qed.

(** ** the argument for any interpreter that follows one child per node

    [val t e c]: the value of the edge [e] of the table [t] under the choice [c]; a terminal
    has the same value in both tables, a node the value of the chosen child, seen through the
    tag of the incoming edge ([wrap]).  A relabelled node keeps its children and finds its
    choice at its new level.  What the kind has to supply is the rewritten node
    ([val_rebuilt]): the child the new table takes for the exchanged choice and the child
    the old table takes agree with one and the same edge below both levels. *)

Section SwapSem.
Variable s : snap.
Variable i : nat.
Hypothesis H : WF s.
Variable good : node -> Prop.
Variable rebuilt : PositiveMap.t node -> positive -> node -> Prop.
Hypothesis rebuilt_find : forall m id nd, rebuilt m id nd ->
  exists ch, PositiveMap.find id m = Some (mkNode i ch i (nrc nd)).
Variable M : PositiveMap.t node.
Hypothesis SP : Spec s i good rebuilt M.
Variable V : Type.
Variable val : snap -> edge -> (nat -> nat) -> option V.
Variable wrap : edge -> option V -> option V.

Notation s1 := (swapped s i M).
Notation isdep := (isdep s i).

Hypothesis val_term : forall e t c c', eref e = RT t -> val s1 e c' = val s e c.
Hypothesis val_node : forall e id nd ch c, eref e = RN id -> find_node s id = Some nd ->
  nth_error (nchildren nd) (c (nlevel nd)) = Some ch -> val s e c = wrap e (val s ch c).
Hypothesis val_node1 : forall e id nd ch c, eref e = RN id -> find_node s1 id = Some nd ->
  nth_error (nchildren nd) (c (nlevel nd)) = Some ch -> val s1 e c = wrap e (val s1 ch c).
Hypothesis val_rebuilt : forall id nd nn c ca,
  find_node s id = Some nd -> isdep nd -> PositiveMap.find id M = Some nn -> choice_ok s c ->
  nth_error (nchildren nd) (c i) = Some ca ->
  exists eb x, nth_error (nchildren nn) (c (S i)) = Some eb
    /\ ref_ok s (eref x) /\ S i < rlevel s (eref x)
    /\ val s1 eb (swap_choice i c) = val s1 x (swap_choice i c) /\ val s ca c = val s x c.

Theorem swapped_val : forall k e c, ref_ok s (eref e) -> choice_ok s c ->
  nlevels s - rlevel s (eref e) <= k ->
  val s1 e (swap_choice i c) = val s e c.
Proof.
  induction k as [k IH] using lt_wf_ind. intros e c Hok Hc Hm.
  destruct (eref e) as [t|id] eqn:Er; [apply (val_term e t _ _ Er)|].
  destruct Hok as [nd E].
  pose proof (wf_level s H id nd E) as Hlv.
  rewrite (rlevel_node s id nd E) in Hm.
  (* the induction hypothesis for everything strictly below the node *)
  assert (IH' : forall e', ref_ok s (eref e') -> nlevel nd < rlevel s (eref e') ->
                   val s1 e' (swap_choice i c) = val s e' c).
  { intros e' Ok' Lt'. apply (IH (nlevels s - rlevel s (eref e'))); [|exact Ok' | exact Hc | lia].
    pose proof (rlevel_le s H (eref e')). lia. }
  destruct (nth_error (nchildren nd) (c (nlevel nd))) as [cb|] eqn:Hcb.
  2:{ apply nth_error_None in Hcb. rewrite (wf_arity s H id nd E) in Hcb. specialize (Hc (nlevel nd)). lia. }
  assert (Hin : In cb (nchildren nd)) by (eapply nth_error_In; exact Hcb).
  destruct (wf_child s H id nd cb E Hin) as [Okb Ltb].
  rewrite (val_node e id nd cb c Er E Hcb).
  destruct (isdep_dec s i nd) as [D|D].
  - (* the node is rewritten *)
    destruct (rebuilt_find _ _ _ (spec_dep SP id nd E D)) as [ch Hf].
    pose proof (proj1 D) as Dl. rewrite Dl in Hcb.
    destruct (val_rebuilt id nd _ c cb E D Hf Hc Hcb) as [eb [x [Heb [Okx [Lx [V1 V0]]]]]].
    rewrite (val_node1 e id _ eb (swap_choice i c) Er Hf)
      by (simpl; unfold swap_choice; rewrite swap_idx_i; exact Heb).
    rewrite V1, V0. f_equal. apply IH'; [exact Okx | lia].
  - (* the node only changes its level *)
    pose proof (spec_old SP id nd E D) as Hf.
    assert (Hsw : swap_choice i c (nlevel (relabel s i nd)) = c (nlevel nd)).
    { unfold swap_choice.
      destruct (relabel_cases s i nd) as [[A R]|[[A [_ R]]|[[A R]|[A [B R]]]]]; rewrite R; simpl.
      - rewrite swap_idx_i, A. reflexivity.
      - rewrite swap_idx_Si, A. reflexivity.
      - contradiction.
      - rewrite swap_idx_other by assumption. reflexivity. }
    rewrite (val_node1 e id (relabel s i nd) cb (swap_choice i c) Er Hf)
      by (rewrite Hsw, relabel_children; exact Hcb).
    f_equal. apply IH'; assumption.
Qed.

End SwapSem.

Section Sem.
Variable s : snap.
Variable i : nat.
Hypothesis H : WF s.
Hypothesis Hk : bink (s_kind s).
Hypothesis Hi : S i < nlevels s.

Let s1 := level_swap_core s i.
Let M := swap_nodes s i.
Let H1 : WF s1 := core_wf s i H Hk Hi.

Notation low := (low s i).
Notation isdep := (isdep s i).
Notation rep := (rep i).

(** the result of [reduce] + lookup on the new lower level, evaluated *)
Lemma rep_sem : forall x y e c' b, rep M x y e -> b < 2 -> c' (S i) = b ->
  semn s1 (eref e) c' = semn s1 (eref (if Nat.eqb b 0 then x else y)) c'.
Proof.
  intros x y e c' b [[A ->]|[A [id [nd [-> [E [L C]]]]]]] Hb Hc'.
  - subst y. destruct (Nat.eqb b 0); reflexivity.
  - simpl eref. apply (semn_node s1 H1 id nd _ c' E). rewrite L, Hc', C.
    destruct b as [|[|b]]; [reflexivity | reflexivity | lia].
Qed.

(** a child of a node of the upper level, evaluated: its cofactor w.r.t. the lower level *)
Lemma cof_sem : forall id nd c cc b2, find_node s id = Some nd -> nlevel nd = i -> In c (nchildren nd) ->
  b2 < 2 -> cc (S i) = b2 -> semn s (eref c) cc = semn s (eref (bcof s (S i) c b2)) cc.
Proof.
  intros id nd c cc b2 E Hl Hc Hb Hcc.
  destruct (child_cases s i H Hk Hi id nd c E Hl Hc)
    as [[_ [_ Sk]]|[cid [cn [g0 [g1 [-> [Ec [Lc [Cc [_ [_ [_ [B0 B1]]]]]]]]]]]]].
  - rewrite Sk. reflexivity.
  - simpl eref at 1. apply (semn_node s H cid cn _ cc Ec). rewrite Lc, Hcc, Cc.
    destruct b2 as [|[|b2]]; [rewrite B0; reflexivity | rewrite B1; reflexivity | lia].
Qed.

Lemma rebuilt_sem : forall id nd nn c ca,
  find_node s id = Some nd -> isdep nd -> PositiveMap.find id M = Some nn -> choice_ok s c ->
  nth_error (nchildren nd) (c i) = Some ca ->
  exists eb x, nth_error (nchildren nn) (c (S i)) = Some eb
    /\ ref_ok s (eref x) /\ S i < rlevel s (eref x)
    /\ semn s1 (eref eb) (swap_choice i c) = semn s1 (eref x) (swap_choice i c)
    /\ semn s (eref ca) c = semn s (eref x) c.
Proof.
  intros id nd nn c ca E D Hf Hc Hca.
  destruct (spec_dep (swap_nodes_spec s i H Hk Hi) id nd E D) as [c0 [c1 [e0 [e1 [Hch [Hf' [R0 R1]]]]]]].
  change (PositiveMap.find id M = Some (mkNode i [e0; e1] i (nrc nd))) in Hf'.
  rewrite Hf in Hf'. inversion Hf'; subst nn. clear Hf'.
  assert (Ha : c i < 2) by (specialize (Hc i); rewrite (bink_arity _ Hk) in Hc; exact Hc).
  assert (Hb : c (S i) < 2) by (specialize (Hc (S i)); rewrite (bink_arity _ Hk) in Hc; exact Hc).
  assert (Hin : In ca (nchildren nd)) by (eapply nth_error_In; exact Hca).
  destruct (bcof_low s i H Hk Hi id nd ca (c (S i)) E (proj1 D) Hin Hb) as [Okx [_ Lx]].
  assert (Hsw : swap_choice i c (S i) = c i) by (unfold swap_choice; rewrite swap_idx_Si; reflexivity).
  exists (if Nat.eqb (c (S i)) 0 then e0 else e1), (bcof s (S i) ca (c (S i))).
  split; [|split; [exact Okx|split; [exact Lx|split; [|apply (cof_sem id nd ca c _ E (proj1 D) Hin Hb eq_refl)]]]].
  - simpl. destruct (c (S i)) as [|[|b]]; [reflexivity | reflexivity | lia].
  - rewrite Hch in Hca.
    destruct (c (S i)) as [|[|b]]; [| |lia]; simpl Nat.eqb; cbv iota.
    + rewrite (rep_sem _ _ e0 _ (c i) R0 Ha Hsw).
      destruct (c i) as [|[|a]]; [| |lia]; inversion Hca; reflexivity.
    + rewrite (rep_sem _ _ e1 _ (c i) R1 Ha Hsw).
      destruct (c i) as [|[|a]]; [| |lia]; inversion Hca; reflexivity.
Qed.

Theorem core_sem : forall k r c, ref_ok s r -> choice_ok s c -> nlevels s - rlevel s r <= k ->
  semn s1 r (swap_choice i c) = semn s r c.
Proof.
  intros k r c. 
  apply (swapped_val s i H _ _ (rebuilt_find s i) M (swap_nodes_spec s i H Hk Hi)
           N (fun t e c => semn t (eref e) c) (fun _ v => v)) with (e := mkEdge r false).
  - intros e t c0 c' Er. rewrite Er. unfold semn. rewrite !semk_T. reflexivity.
  - intros e id nd ch c0 Er E Hch. rewrite Er. apply (semn_node s H id nd ch c0 E Hch).
  - intros e id nd ch c0 Er E Hch. rewrite Er. apply (semn_node s1 H1 id nd ch c0 E Hch).
  - exact rebuilt_sem.
Qed.

End Sem.
