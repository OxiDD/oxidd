(** * C08, part T — the node table after [level_swap_tcore] (TDD kind: ternary nodes)

    The ternary instance of the loop invariant [Inv] and of the specification [Spec] of the
    table after the loop (Mgr/LevelSwapInv.v), for the fold of [rebuild3]: what a rewritten
    node ([rebuilt3]) and a new node ([goodnew3]) look like, and that [mk3] and [rebuild3] keep
    the invariant.  Nodes have three children (true, unknown, false), no complement
    tags, reduction rule "all three children equal".  The arity-agnostic parts ([relabel],
    [depends], [dep_ids]: Mgr/LevelSwap.v; [ext], [low], [bcof_skip]: Mgr/LevelSwapInv.v) are shared. *)

From Coq Require Import List NArith PArith Bool Arith Lia FMapPositive.
From OxiVerif Require Import DD.Table DD.TableProofs Mgr.SortOrder Mgr.SortOrderProofs
  Mgr.LevelSwap Mgr.LevelSwapBase Mgr.LevelSwapInv Mgr.LevelSwapT.
Import ListNotations.

Definition eq3 (x y z : edge) : Prop := x = y /\ y = z.

Lemma eq3_dec : forall x y z, {eq3 x y z} + {~ eq3 x y z}.
Proof.
  intros x y z. unfold eq3.
  destruct (edge_eqb x y) eqn:A; [|right; intros [P _]; apply edge_eqb_eq in P; congruence].
  destruct (edge_eqb y z) eqn:B; [|right; intros [_ P]; apply edge_eqb_eq in P; congruence].
  left. split; apply edge_eqb_eq; assumption.
Qed.

Lemma eq3_b : forall x y z, edge_eqb x y && edge_eqb y z = true <-> eq3 x y z.
Proof. intros x y z. unfold eq3. rewrite andb_true_iff, !edge_eqb_eq. tauto. Qed.

Lemma all_same_triple : forall a b c : edge, all_same [a; b; c] <-> eq3 a b c.
Proof.
  intros a b c. unfold all_same, eq3. split.
  - intros Hs. split; apply Hs; simpl; auto.
  - intros [-> ->] x y [<-|[<-|[<-|[]]]] [<-|[<-|[<-|[]]]]; reflexivity.
Qed.

Lemma length3 : forall (A : Type) (l : list A), length l = 3 -> exists a b c, l = [a; b; c].
Proof.
  intros A [|a [|b [|c [|d r]]]] Hl; simpl in Hl; try discriminate. eauto.
Qed.

Section SwapT.
Variable s : snap.
Variable i : nat.
Hypothesis H : WF s.
Hypothesis Hk : s_kind s = KTdd.
Hypothesis Hi : S i < nlevels s.

Notation isdep := (isdep s i).
Notation low := (low s i).
Notation cof := (bcof s (S i)).

Lemma not_bcdd_t : s_kind s <> KBcdd.
Proof. rewrite Hk. discriminate. Qed.

(** ** stored TDD nodes *)

Lemma tdd_children : forall id nd, find_node s id = Some nd ->
  exists c0 c1 c2, nchildren nd = [c0; c1; c2] /\ ~ eq3 c0 c1 c2.
Proof.
  intros id nd E. pose proof (wf_arity s H id nd E) as Ha. rewrite Hk in Ha. simpl in Ha.
  destruct (length3 _ _ Ha) as [c0 [c1 [c2 Hc]]]. exists c0, c1, c2. split; [exact Hc|].
  pose proof (wf_reduced s H id nd E) as Hr. unfold reduced in Hr. rewrite Hk, Hc in Hr.
  intros Heq. apply Hr. apply all_same_triple. exact Heq.
Qed.

Lemma tdd_tag : forall id nd e, find_node s id = Some nd -> In e (nchildren nd) -> etag e = false.
Proof. intros id nd e E He. exact (wf_tags s H not_bcdd_t id nd e E He). Qed.

(** ** [bcof] *)

Lemma bcof_at3 : forall c cid cn g0 g1 g2,
  eref c = RN cid -> find_node s cid = Some cn -> nlevel cn = S i -> nchildren cn = [g0; g1; g2] ->
  cof c 0 = g0 /\ cof c 1 = g1 /\ cof c 2 = g2.
Proof.
  intros c cid cn g0 g1 g2 Er E Hl Hc. unfold bcof. rewrite Er, E, Hl, Nat.eqb_refl, Hc.
  split; [|split]; reflexivity.
Qed.

(** the two cases for a child [c] of a node of the upper level *)
Lemma child_cases3 : forall id nd c, find_node s id = Some nd -> nlevel nd = i -> In c (nchildren nd) ->
  (rlevel s (eref c) <> S i /\ low c /\ forall b, cof c b = c)
  \/ (exists cid cn g0 g1 g2, c = mkEdge (RN cid) false /\ find_node s cid = Some cn /\ nlevel cn = S i
        /\ nchildren cn = [g0; g1; g2] /\ ~ eq3 g0 g1 g2 /\ low g0 /\ low g1 /\ low g2
        /\ cof c 0 = g0 /\ cof c 1 = g1 /\ cof c 2 = g2).
Proof.
  intros id nd c E Hl Hc.
  destruct (wf_child s H id nd c E Hc) as [Hok Hlt]. pose proof (tdd_tag id nd c E Hc) as Ht.
  destruct (Nat.eq_dec (rlevel s (eref c)) (S i)) as [Heq|Hne].
  - right. destruct (eref c) as [t|cid] eqn:Er.
    { simpl in Heq. lia. }
    simpl in Heq. destruct (find_node s cid) as [cn|] eqn:Ec; [|lia].
    destruct (tdd_children cid cn Ec) as [g0 [g1 [g2 [Hg Hne]]]].
    exists cid, cn, g0, g1, g2.
    assert (Hlow : forall g, In g (nchildren cn) -> low g).
    { intros g Hg'. destruct (wf_child s H cid cn g Ec Hg') as [A B].
      split; [exact A|]. split; [exact (tdd_tag cid cn g Ec Hg') | lia]. }
    destruct (bcof_at3 c cid cn g0 g1 g2 Er Ec Heq Hg) as [B0 [B1 B2]].
    assert (Hce : c = mkEdge (RN cid) false).
    { destruct c as [r t]. simpl in *. subst. reflexivity. }
    assert (L0 : low g0) by (apply Hlow; rewrite Hg; simpl; auto).
    assert (L1 : low g1) by (apply Hlow; rewrite Hg; simpl; auto).
    assert (L2 : low g2) by (apply Hlow; rewrite Hg; simpl; auto).
    auto 20.
  - left. split; [exact Hne|]. split.
    + split; [exact Hok|]. split; [exact Ht | lia].
    + intros b. apply (bcof_skip s i). exact Hne.
Qed.

Lemma bcof_low3 : forall id nd c b, find_node s id = Some nd -> nlevel nd = i -> In c (nchildren nd) ->
  b < 3 -> low (cof c b).
Proof.
  intros id nd c b E Hl Hc Hb.
  destruct (child_cases3 id nd c E Hl Hc)
    as [[_ [Hlow Hb']]|(cid & cn & g0 & g1 & g2 & _ & _ & _ & _ & _ & L0 & L1 & L2 & B0 & B1 & B2)].
  - rewrite Hb'. exact Hlow.
  - destruct b as [|[|[|b]]]; [rewrite B0; exact L0 | rewrite B1; exact L1 | rewrite B2; exact L2 | lia].
Qed.

(** the triple of cofactors determines the child *)
Lemma bcof_inj3 : forall id1 nd1 c id2 nd2 d,
  find_node s id1 = Some nd1 -> nlevel nd1 = i -> In c (nchildren nd1) ->
  find_node s id2 = Some nd2 -> nlevel nd2 = i -> In d (nchildren nd2) ->
  cof c 0 = cof d 0 -> cof c 1 = cof d 1 -> cof c 2 = cof d 2 -> c = d.
Proof.
  intros id1 nd1 c id2 nd2 d E1 L1 Hc E2 L2 Hd B0 B1 B2.
  destruct (child_cases3 id1 nd1 c E1 L1 Hc)
    as [[_ [_ Sc]]|(cid & cn & g0 & g1 & g2 & Ec & Fc & Lc & Cc & Nc & _ & _ & _ & C0 & C1 & C2)];
  destruct (child_cases3 id2 nd2 d E2 L2 Hd)
    as [[_ [_ Sd]]|(did & dn & h0 & h1 & h2 & Ed & Fd & Ld & Cd & Nd & _ & _ & _ & D0 & D1 & D2)].
  - rewrite (Sc 0), (Sd 0) in B0. exact B0.
  - exfalso. rewrite (Sc 0), D0 in B0. rewrite (Sc 1), D1 in B1. rewrite (Sc 2), D2 in B2.
    apply Nd. split; congruence.
  - exfalso. rewrite C0, (Sd 0) in B0. rewrite C1, (Sd 1) in B1. rewrite C2, (Sd 2) in B2.
    apply Nc. split; congruence.
  - rewrite C0, D0 in B0. rewrite C1, D1 in B1. rewrite C2, D2 in B2. subst g0 g1 g2.
    assert (cid = did).
    { apply (wf_unique s H cid did cn dn Fc Fd); congruence. }
    subst. reflexivity.
Qed.

(** a node of the upper level that references the lower level has a child whose three
    cofactors are not all equal: the rewritten node is not reduced away *)
Lemma dep_not_all3 : forall id nd c0 c1 c2, find_node s id = Some nd -> isdep nd -> nchildren nd = [c0; c1; c2] ->
  ~ (eq3 (cof c0 0) (cof c0 1) (cof c0 2) /\ eq3 (cof c1 0) (cof c1 1) (cof c1 2)
     /\ eq3 (cof c2 0) (cof c2 1) (cof c2 2)).
Proof.
  intros id nd c0 c1 c2 E [Hl Hd] Hc [A [B C]].
  apply depends_spec in Hd. destruct Hd as [e [He Hle]]. rewrite Hc in He.
  assert (Hcase : forall c, In c (nchildren nd) -> rlevel s (eref c) = S i -> ~ eq3 (cof c 0) (cof c 1) (cof c 2)).
  { intros c Hin Hlv.
    destruct (child_cases3 id nd c E Hl Hin)
      as [[Hne _]|(cid & cn & g0 & g1 & g2 & _ & _ & _ & _ & Hg & _ & _ & _ & B0 & B1 & B2)].
    - contradiction.
    - rewrite B0, B1, B2. exact Hg. }
  destruct He as [<-|[<-|[<-|[]]]].
  - apply (Hcase c0); [rewrite Hc; simpl; auto | exact Hle | exact A].
  - apply (Hcase c1); [rewrite Hc; simpl; auto | exact Hle | exact B].
  - apply (Hcase c2); [rewrite Hc; simpl; auto | exact Hle | exact C].
Qed.

(** ** the loop invariant *)

(** [e] is what [reduce] + lookup/insert on the new lower level returns for the children [x], [y], [z] *)
Definition rep3 (m : PositiveMap.t node) (x y z e : edge) : Prop :=
  (eq3 x y z /\ e = x)
  \/ (~ eq3 x y z /\ exists id nd, e = mkEdge (RN id) false /\ PositiveMap.find id m = Some nd
                              /\ nlevel nd = S i /\ nchildren nd = [x; y; z]).

(** a node created by the swap *)
Definition goodnew3 (nd : node) : Prop :=
  nlevel nd = S i /\ nstored nd = S i
  /\ exists x y z, nchildren nd = [x; y; z] /\ ~ eq3 x y z /\ low x /\ low y /\ low z.

Notation ext := (ext i).

Lemma rep3_ext : forall m m' x y z e, ext m m' -> rep3 m x y z e -> rep3 m' x y z e.
Proof.
  intros m m' x y z e Hx [A|[A [id [nd [B [C [D F]]]]]]]; [left; exact A | right].
  split; [exact A|]. exists id, nd. repeat split; auto.
Qed.

(** the rewritten form of a node of the upper level that references the lower level *)
Definition rebuilt3 (m : PositiveMap.t node) (id : positive) (nd : node) : Prop :=
  exists c0 c1 c2 e0 e1 e2, nchildren nd = [c0; c1; c2]
    /\ PositiveMap.find id m = Some (mkNode i [e0; e1; e2] i (nrc nd))
    /\ rep3 m (cof c0 0) (cof c1 0) (cof c2 0) e0
    /\ rep3 m (cof c0 1) (cof c1 1) (cof c2 1) e1
    /\ rep3 m (cof c0 2) (cof c1 2) (cof c2 2) e2.

Lemma rebuilt3_find : forall m id nd, rebuilt3 m id nd ->
  exists ch, PositiveMap.find id m = Some (mkNode i ch i (nrc nd)).
Proof. intros m id nd [c0 [c1 [c2 [e0 [e1 [e2 [_ [Hf _]]]]]]]]. eauto. Qed.

Lemma goodnew3_level : forall nd, goodnew3 nd -> nlevel nd = S i /\ nstored nd = S i.
Proof. intros nd [A [B _]]. auto. Qed.

Lemma rebuilt3_add : forall m id nd k x,
  rebuilt3 m id nd -> k <> id -> ext m (PositiveMap.add k x m) -> rebuilt3 (PositiveMap.add k x m) id nd.
Proof.
  intros m id nd k x [c0 [c1 [c2 [e0 [e1 [e2 [Hc [Hf [R0 [R1 R2]]]]]]]]]] Hne Hx.
  exists c0, c1, c2, e0, e1, e2.
  split; [exact Hc|]. split; [|split; [|split]; eapply rep3_ext; eauto].
  rewrite find_add. destruct (Pos.eqb_spec id k); [congruence | exact Hf].
Qed.

Notation InvT := (Inv s i goodnew3 rebuilt3).

(** [reduce] + [get_or_insert] on the new lower level *)
Lemma mk3_inv : forall P st x y z e st',
  InvT P st -> low x -> low y -> low z -> mk3 st (S i) x y z = (e, st') ->
  InvT P st' /\ rep3 (fst st') x y z e /\ ext (fst st) (fst st').
Proof.
  intros P [m nxt] x y z e st' I Lx Ly Lz. unfold mk3. simpl fst. simpl snd.
  destruct (edge_eqb x y && edge_eqb y z) eqn:Exy.
  { intros E. inversion E; subst. apply eq3_b in Exy.
    split; [exact I|]. split; [left; auto | apply ext_refl]. }
  assert (Hne : ~ eq3 x y z) by (intros Q; apply eq3_b in Q; congruence).
  destruct (find_at m (S i) [x; y; z]) as [id|] eqn:F.
  { intros E. inversion E; subst. destruct (find_at_some _ _ _ _ F) as [nd [A [B C]]].
    split; [exact I|]. split; [|apply ext_refl].
    right. split; [exact Hne|]. exists id, nd. auto. }
  intros E. inversion E; subst e st'. clear E. simpl fst. simpl snd.
  destruct (inv_insert s i goodnew3 rebuilt3 rebuilt3_add P m nxt [x; y; z] I F) as [I' Hext].
  { split; [reflexivity|]. split; [reflexivity|]. exists x, y, z. auto. }
  split; [exact I'|]. split; [|exact Hext].
  right. split; [exact Hne|]. exists nxt, (mkNode (S i) [x; y; z] (S i) 0%N).
  split; [reflexivity|]. split; [|split; reflexivity].
  rewrite find_add, Pos.eqb_refl. reflexivity.
Qed.

(** one iteration of the loop *)
Lemma rebuild3_inv : forall P st id nd,
  InvT P st -> find_node s id = Some nd -> isdep nd -> ~ In id P ->
  InvT (id :: P) (rebuild3 s i st id).
Proof.
  intros P st id nd I E D Hn. unfold rebuild3. rewrite E.
  destruct (tdd_children id nd E) as [c0 [c1 [c2 [Hc Hne]]]]. rewrite Hc.
  assert (Hin0 : In c0 (nchildren nd)) by (rewrite Hc; simpl; auto).
  assert (Hin1 : In c1 (nchildren nd)) by (rewrite Hc; simpl; auto).
  assert (Hin2 : In c2 (nchildren nd)) by (rewrite Hc; simpl; auto).
  assert (Lw : forall c b, In c (nchildren nd) -> b < 3 -> low (cof c b))
    by (intros c b Hin Hb; apply (bcof_low3 id nd c b E (proj1 D) Hin Hb)).
  destruct (mk3 st (S i) (cof c0 0) (cof c1 0) (cof c2 0)) as [e0 st1] eqn:M0.
  destruct (mk3 st1 (S i) (cof c0 1) (cof c1 1) (cof c2 1)) as [e1 st2] eqn:M1.
  destruct (mk3 st2 (S i) (cof c0 2) (cof c1 2) (cof c2 2)) as [e2 st3] eqn:M2.
  destruct (mk3_inv P st _ _ _ e0 st1 I (Lw c0 0 Hin0 ltac:(lia)) (Lw c1 0 Hin1 ltac:(lia)) (Lw c2 0 Hin2 ltac:(lia)) M0)
    as [I1 [R0 X1]].
  destruct (mk3_inv P st1 _ _ _ e1 st2 I1 (Lw c0 1 Hin0 ltac:(lia)) (Lw c1 1 Hin1 ltac:(lia)) (Lw c2 1 Hin2 ltac:(lia)) M1)
    as [I2 [R1 X2]].
  destruct (mk3_inv P st2 _ _ _ e2 st3 I2 (Lw c0 2 Hin0 ltac:(lia)) (Lw c1 2 Hin1 ltac:(lia)) (Lw c2 2 Hin2 ltac:(lia)) M2)
    as [I3 [R2 X3]].
  pose proof (rep3_ext _ _ _ _ _ _ X3 (rep3_ext _ _ _ _ _ _ X2 R0)) as R0'.
  pose proof (rep3_ext _ _ _ _ _ _ X3 R1) as R1'.
  destruct (inv_rewrite s i goodnew3 rebuilt3 rebuilt3_add P st3 id nd (mkNode i [e0; e1; e2] i (nrc nd))
              I3 E D Hn eq_refl) as [Hext Hfin].
  apply Hfin. exists c0, c1, c2, e0, e1, e2. split; [exact Hc|]. split.
  - rewrite find_add, Pos.eqb_refl. reflexivity.
  - split; [|split]; eapply rep3_ext; eauto.
Qed.

(** ** the table after the loop *)

Theorem swap_nodes_t_spec : Spec s i goodnew3 rebuilt3 (swap_nodes_t s i).
Proof. exact (loop_spec s i H goodnew3 rebuilt3 (rebuild3 s i) rebuild3_inv). Qed.

End SwapT.
