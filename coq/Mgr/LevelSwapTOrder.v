(** * C08, part T — a sequence of adjacent level swaps of a TDD: [set_var_order_model_t]

    The counterparts of Mgr/LevelSwapOrder.v for ternary nodes: [tswaps_fold],
    [set_var_order_model_t_correct] / [_respects] / [_canonical], and an example on which the
    loop rewrites a node (one child on the lower level, two children skipping it), creates
    three nodes and removes one. *)

From Coq Require Import List NArith PArith Bool Arith Lia FMapPositive Permutation.
From OxiVerif Require Import DD.Table DD.TableProofs DD.Canon Mgr.SortOrder Mgr.SortOrderProofs
  Mgr.LevelSwap Mgr.LevelSwapBase Mgr.LevelSwapProofs Mgr.LevelSwapOrder
  Mgr.LevelSwapT Mgr.LevelSwapTProofs.
Import ListNotations.

(** ** a sequence of swaps *)

Theorem tswaps_fold : forall sw s,
  WF s -> s_kind s = KTdd -> Forall (fun k => S k < nlevels s) sw ->
  let s' := fold_left level_swap_t sw s in
  WF s' /\ s_kind s' = s_kind s /\ nlevels s' = nlevels s /\ s_handles s' = s_handles s
  /\ s_l2v s' = replay sw (s_l2v s)
  /\ (forall h a, tasg_ok a -> In h (s_handles s) ->
        teval_vars s' (snd h) a = teval_vars s (snd h) a /\ exists v, teval_vars s (snd h) a = Some v).
Proof.
  intros sw s H Hk Hsw.
  destruct (swaps_fold_gen level_swap_t (fun t => WF t /\ s_kind t = s_kind s) _ _ tasg_ok teval_vars)
    with (sw := sw) (s := s) as [[A B] [C [D [F [_ G]]]]]; auto.
  - intros t k [Ht Kt] Hk0. rewrite <- Kt in Hk.
    split; [split; [apply (level_swap_t_wf t k Ht Hk Hk0) | exact Kt]|]. repeat split.
    intros h a Ha Hh. apply (level_swap_t_handles_vars t k Ht Hk Hk0 h a Ha Hh).
  - split; [exact A|]. split; [exact B|]. split; [exact C|]. split; [exact D|]. split; [exact F|].
    intros h a Ha Hh. split; [apply G; auto|].
    destruct (wf_handles s H h Hh) as [Ok _]. unfold teval_vars.
    apply (sem_total s H); [exact Ok | apply tasg_choice_ok; assumption].
Qed.

(** ** [set_var_order_model_t] *)

Section OrderT.
Variable s : snap.
Variable order : list nat.
Hypothesis H : WF s.
Hypothesis Hk : s_kind s = KTdd.
(* the requests on which [set_var_order] does not panic: variables in range, none twice *)
Hypothesis Hnd : NoDup order.
Hypothesis Hr : Forall (fun v => v < nlevels s) order.

Let n := nlevels s.
Let levels := map (fun v => nth v (s_v2l s) 0) order.
Let target := sort_order n levels.
Let s' := set_var_order_model_t s order.

Theorem set_var_order_model_t_correct :
  WF s' /\ s_kind s' = s_kind s /\ nlevels s' = n /\ s_handles s' = s_handles s
  /\ (forall h a, tasg_ok a -> In h (s_handles s) ->
        teval_vars s' (snd h) a = teval_vars s (snd h) a /\ exists v, teval_vars s (snd h) a = Some v)
  /\ (forall v, v < n -> nth v (s_v2l s') 0 = nth (nth v (s_v2l s) 0) target 0)
  /\ length (snd (bubble_sort target)) = inv target.
Proof.
  destruct (target_swaps s order H Hnd Hr) as [Hsw Hcount].
  destruct (tswaps_fold _ s H Hk Hsw) as [A [B [C [D [F G]]]]].
  split; [exact A|]. split; [exact B|]. split; [exact C|]. split; [exact D|]. split; [exact G|].
  split; [|exact Hcount]. exact (target_positions s order H Hnd Hr _ A C F).
Qed.

(** the variables named in the request end up in the requested relative order *)
Theorem set_var_order_model_t_respects : forall a b, a < b < length order ->
  nth (nth a order 0) (s_v2l s') 0 < nth (nth b order 0) (s_v2l s') 0.
Proof.
  apply (target_respects s order H Hnd Hr). apply set_var_order_model_t_correct.
Qed.

(** the reordered diagram is canonical again (the theorem of C01 applies to the result) *)
Theorem set_var_order_model_t_canonical : forall h1 h2,
  In h1 (s_handles s) -> In h2 (s_handles s) ->
  (snd h1 = snd h2 <->
   forall c, choice_ok s' c -> sem_edge s' (snd h1) c = sem_edge s' (snd h2) c).
Proof.
  intros h1 h2 H1 H2.
  destruct set_var_order_model_t_correct as [A [B [_ [D _]]]].
  apply (canon_kary_handles s' A).
  - rewrite B, Hk. split; discriminate.
  - rewrite D. exact H1.
  - rewrite D. exact H2.
Qed.

End OrderT.

(** ** the hypotheses are satisfiable; the loop does something *)

(** three variables; terminals 0 = False, 1 = Unknown, 2 = True (value codes = ids);
    node 1 = x2 (level 2), node 2 (level 1) = [node 1; Unknown; False],
    node 3 (level 0) = [node 2; Unknown; node 1]: its true-child lies on level 1, the other two
    children skip it.  Handles: node 3 and node 1. *)
Definition tex_e (r : ref) : edge := mkEdge r false.

Definition tex_swap : snap :=
  mkSnap KTdd
    (PositiveMap.add 3%positive (mkNode 0 [tex_e (RN 2); tex_e (RT 1); tex_e (RN 1)] 0 1)
    (PositiveMap.add 2%positive (mkNode 1 [tex_e (RN 1); tex_e (RT 1); tex_e (RT 0)] 1 1)
    (PositiveMap.add 1%positive (mkNode 2 [tex_e (RT 2); tex_e (RT 1); tex_e (RT 0)] 2 3)
       (PositiveMap.empty node))))
    [(0%N, 0%N); (1%N, 1%N); (2%N, 2%N)]
    [0; 1; 2] [0; 1; 2]
    [(0%N, tex_e (RN 3)); (1%N, tex_e (RN 1))].

Example tex_swap_WF : WF tex_swap.
Proof. apply wf_b_spec. vm_compute. reflexivity. Qed.

(** swapping levels 0 and 1: node 3 is rewritten, its three new children are new nodes of
    level 1 (ids 4, 5, 6: the columns (node 1, Unknown, node 1), (Unknown, Unknown, node 1),
    (False, Unknown, node 1) of the cofactor matrix), node 2 loses its last reference and is
    removed, node 1 is not touched *)
Example tex_swap_all :
  WF tex_swap /\ s_kind tex_swap = KTdd /\ 1 < nlevels tex_swap
  /\ dep_ids tex_swap 0 = [3]%positive
  /\ (let z := level_swap_t tex_swap 0 in
      find_node z 3 = Some (mkNode 0 [tex_e (RN 4); tex_e (RN 5); tex_e (RN 6)] 0 1)
      /\ find_node z 4 = Some (mkNode 1 [tex_e (RN 1); tex_e (RT 1); tex_e (RN 1)] 1 0)
      /\ find_node z 5 = Some (mkNode 1 [tex_e (RT 1); tex_e (RT 1); tex_e (RN 1)] 1 0)
      /\ find_node z 6 = Some (mkNode 1 [tex_e (RT 0); tex_e (RT 1); tex_e (RN 1)] 1 0)
      /\ find_node z 2 = None
      /\ find_node z 1 = Some (mkNode 2 [tex_e (RT 2); tex_e (RT 1); tex_e (RT 0)] 2 3)
      /\ PositiveMap.cardinal (s_nodes z) = 5
      /\ s_v2l z = [1; 0; 2] /\ s_l2v z = [1; 0; 2])
  /\ s_v2l (set_var_order_model_t tex_swap [2; 1; 0]) = [2; 1; 0]
  /\ NoDup [2; 1; 0] /\ Forall (fun v => v < nlevels tex_swap) [2; 1; 0].
Proof.
  split; [exact tex_swap_WF|]. split; [reflexivity|]. split; [vm_compute; lia|].
  split; [vm_compute; reflexivity|].
  split; [vm_compute; repeat split; reflexivity|].
  split; [vm_compute; reflexivity|].
  split.
  - repeat constructor; simpl; intuition lia.
  - repeat constructor; vm_compute; lia.
Qed.

(** ** statements as they appear in Props/C08.v *)

Theorem level_swap_t_maps_all : forall s i,
  WF s -> s_kind s = KTdd -> S i < nlevels s ->
  s_l2v (level_swap_t s i) = swap_adj i (s_l2v s)
  /\ s_v2l (level_swap_t s i) = map (swap_idx i) (s_v2l s)
  /\ (forall l, nth_error (s_l2v (level_swap_t s i)) l = nth_error (s_l2v s) (swap_idx i l))
  /\ (forall v, nth_error (s_v2l (level_swap_t s i)) v = option_map (swap_idx i) (nth_error (s_v2l s) v)).
Proof. intros s i _ _. exact (level_swap_t_maps s i). Qed.

Theorem level_swap_t_handles_both : forall s i,
  WF s -> s_kind s = KTdd -> S i < nlevels s ->
  forall h, In h (s_handles s) ->
    In h (s_handles (level_swap_t s i)) /\ ref_ok (level_swap_t s i) (eref (snd h)).
Proof. intros s i H Hk Hi h Hh. exact (conj Hh (level_swap_t_handle_ok s i H Hk Hi h Hh)). Qed.
