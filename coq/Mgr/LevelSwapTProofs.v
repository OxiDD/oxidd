(** * C08, part T — theorems about [level_swap_t] (Mgr/LevelSwapT.v), TDD kind (ternary nodes)

    For a well-formed TDD table [s] and two adjacent levels [i], [i+1]: the counterparts of
    the theorems of Mgr/LevelSwapProofs.v.  A variable assignment is ternary:
    [a v] = 0 (true), 1 (unknown), 2 (false) = the child index taken at the variable's node;
    [teval_vars s e a] is the value code (0 False, 1 Unknown, 2 True) of the edge [e] under [a]. *)

From Coq Require Import List NArith PArith Bool Arith Lia FMapPositive.
From OxiVerif Require Import DD.Table DD.TableExtra DD.TableProofs DD.Canon Mgr.SortOrder Mgr.SortOrderProofs
  Mgr.LevelSwap Mgr.LevelSwapBase Mgr.LevelSwapInv Mgr.LevelSwapSem Mgr.LevelSwapProofs
  Mgr.LevelSwapZSub Mgr.LevelSwapT Mgr.LevelSwapTInv Mgr.LevelSwapTWF Mgr.LevelSwapTSem.
Import ListNotations.

(** ** functions over ternary variable assignments *)

(** the choice function (child index per level) of a ternary assignment of the variables *)
Definition tasg_choice (s : snap) (a : nat -> nat) : nat -> nat :=
  fun l => a (nth l (s_l2v s) 0).

Definition tasg_ok (a : nat -> nat) : Prop := forall v, a v < 3.

(** the value of the edge [e] of the table [s] under the ternary assignment [a] of the VARIABLES *)
Definition teval_vars (s : snap) (e : edge) (a : nat -> nat) : option N :=
  sem_edge s e (tasg_choice s a).

Lemma tasg_choice_ok : forall s a, s_kind s = KTdd -> tasg_ok a -> choice_ok s (tasg_choice s a).
Proof. intros s a Hk Ha l. rewrite Hk. apply Ha. Qed.

Lemma sem_edge_tdd : forall s e c, s_kind s = KTdd -> sem_edge s e c = semn s (eref e) c.
Proof. intros s e c Hk. unfold sem_edge, semn. rewrite Hk. reflexivity. Qed.

Section SwapT.
Variable s : snap.
Variable i : nat.
Hypothesis H : WF s.
Hypothesis Hk : s_kind s = KTdd.
Hypothesis Hi : S i < nlevels s.

Let s1 := level_swap_tcore s i.
Let s2 := level_swap_t s i.
Let H1 : WF s1 := tcore_wf s i H Hk Hi.

Lemma tsub12 : subsnap s1 s2.
Proof. exact (swept_sub s i _ H1). Qed.

(** (a) well-formedness *)
Theorem level_swap_t_wf : WF (level_swap_t s i).
Proof. apply (subsnap_wf s1 s2 H1 tsub12). Qed.

Theorem level_swap_t_kind : s_kind (level_swap_t s i) = s_kind s.
Proof. reflexivity. Qed.

Theorem level_swap_t_nlevels : nlevels (level_swap_t s i) = nlevels s.
Proof. change (nlevels s2 = nlevels s). rewrite (sub_nlevels _ _ tsub12). apply (tnlevels1 s i). Qed.

(** the two maps are those of [s] with the levels [i] and [i+1] exchanged *)
Theorem level_swap_t_maps :
  s_l2v (level_swap_t s i) = swap_adj i (s_l2v s)
  /\ s_v2l (level_swap_t s i) = map (swap_idx i) (s_v2l s)
  /\ (forall l, nth_error (s_l2v (level_swap_t s i)) l = nth_error (s_l2v s) (swap_idx i l))
  /\ (forall v, nth_error (s_v2l (level_swap_t s i)) v = option_map (swap_idx i) (nth_error (s_v2l s) v)).
Proof.
  split; [reflexivity|]. split; [reflexivity|]. split.
  - intros l. apply nth_error_swap_adj. exact Hi.
  - intros v. apply nth_error_map.
Qed.

(** (c) handles *)
Theorem level_swap_t_handles : s_handles (level_swap_t s i) = s_handles s.
Proof. reflexivity. Qed.

Theorem level_swap_t_handle_ok : forall h, In h (s_handles s) -> ref_ok (level_swap_t s i) (eref (snd h)).
Proof. intros h Hh. apply (sub_hok _ _ tsub12). exact Hh. Qed.

Theorem level_swap_t_child_ok : forall id nd e,
  find_node (level_swap_t s i) id = Some nd -> In e (nchildren nd) -> ref_ok (level_swap_t s i) (eref e).
Proof. apply (sub_child _ _ tsub12). Qed.

(** the only nodes that disappear: nodes of the old lower level that lost their last reference *)
Theorem level_swap_t_removed_only : forall id nd, find_node s id = Some nd ->
  find_node (level_swap_t s i) id = None ->
  nlevel nd = S i /\ In id (dropped_children s i)
  /\ referenced (swap_nodes_t s i) (s_handles s) id = false.
Proof. exact (swept_removed_only s i _ _ (rebuilt3_find s i) _ (swap_nodes_t_spec s i H Hk Hi)). Qed.

(** (d) the other levels are not touched *)
Theorem level_swap_t_untouched : forall id nd, find_node s id = Some nd ->
  nlevel nd <> i -> nlevel nd <> S i -> find_node (level_swap_t s i) id = Some nd.
Proof. exact (swept_untouched s i _ _ (rebuilt3_find s i) _ (swap_nodes_t_spec s i H Hk Hi)). Qed.

Theorem level_swap_t_untouched_rev : forall id nd, find_node (level_swap_t s i) id = Some nd ->
  nlevel nd <> i -> nlevel nd <> S i -> find_node s id = Some nd.
Proof. exact (swept_untouched_rev s i _ _ (rebuilt3_find s i) (goodnew3_level s i) _ (swap_nodes_t_spec s i H Hk Hi) (tcore_wf s i H Hk Hi)). Qed.

(** (b) preservation of the functions, over levels *)
Theorem level_swap_t_sem_levels : forall e c,
  ref_ok s (eref e) -> ref_ok (level_swap_t s i) (eref e) -> choice_ok s c ->
  sem_edge (level_swap_t s i) e (swap_choice i c) = sem_edge s e c.
Proof.
  intros e c Ok Ok2 Hc. rewrite (sem_edge_tdd (level_swap_t s i) _ _ Hk), (sem_edge_tdd s _ _ Hk).
  unfold semn at 1. change (level_swap_t s i) with s2.
  rewrite (subsnap_semk s1 s2 tsub12 _ _ _ Ok2), (sub_nlevels _ _ tsub12).
  apply (tcore_sem s i H Hk Hi (nlevels s) (eref e) c Ok Hc). lia.
Qed.

Lemma tasg_choice_swap : forall a l,
  tasg_choice (level_swap_t s i) a l = swap_choice i (tasg_choice s a) l.
Proof.
  intros a l. unfold tasg_choice, swap_choice.
  change (s_l2v (level_swap_t s i)) with (swap_adj i (s_l2v s)).
  rewrite nth_swap_adj by exact Hi. unfold swap_idx.
  destruct (Nat.eqb l i); [reflexivity|]. destruct (Nat.eqb l (S i)); reflexivity.
Qed.

(** (b) headline: the function over the (ternary) VARIABLES is unchanged *)
Theorem level_swap_t_sem_vars : forall e a, tasg_ok a ->
  ref_ok s (eref e) -> ref_ok (level_swap_t s i) (eref e) ->
  teval_vars (level_swap_t s i) e a = teval_vars s e a.
Proof.
  intros e a Ha Ok Ok2. unfold teval_vars.
  rewrite <- (level_swap_t_sem_levels e (tasg_choice s a) Ok Ok2 (tasg_choice_ok s a Hk Ha)).
  rewrite !(sem_edge_tdd (level_swap_t s i) _ _ Hk). unfold semn.
  apply (semk_ext _ level_swap_t_wf). intros l _. apply tasg_choice_swap.
Qed.

Theorem level_swap_t_handles_vars : forall h a, tasg_ok a -> In h (s_handles s) ->
  teval_vars (level_swap_t s i) (snd h) a = teval_vars s (snd h) a
  /\ exists v, teval_vars s (snd h) a = Some v.
Proof.
  intros h a Ha Hh. destruct (wf_handles s H h Hh) as [Ok _]. split.
  - apply level_swap_t_sem_vars; [exact Ha | exact Ok | apply level_swap_t_handle_ok; exact Hh].
  - unfold teval_vars. apply (sem_total s H); [exact Ok | apply tasg_choice_ok; assumption].
Qed.

End SwapT.
