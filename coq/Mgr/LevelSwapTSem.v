(** * C08, part T — [level_swap_tcore] preserves the function of every edge (TDD kind)

    For every reference [r] stored before the swap and every choice function [c] (child
    index 0 = true, 1 = unknown, 2 = false per LEVEL): the interpretation ([semk]) of [r] in
    the new table under [c] with the entries of the two levels exchanged equals the
    interpretation in the old table under [c]: the instance of [swapped_val]
    (Mgr/LevelSwapSem.v) for ternary nodes. *)

From Coq Require Import List NArith PArith Bool Arith Lia FMapPositive.
From OxiVerif Require Import DD.Table DD.TableProofs DD.Canon Mgr.SortOrder Mgr.SortOrderProofs
  Mgr.LevelSwap Mgr.LevelSwapBase Mgr.LevelSwapInv Mgr.LevelSwapSem
  Mgr.LevelSwapT Mgr.LevelSwapTInv Mgr.LevelSwapTWF.
Import ListNotations.

Lemma pick3 : forall (a b c : edge) k, k < 3 -> nth_error [a; b; c] k = Some (nth k [a; b; c] a).
Proof. intros a b c [|[|[|k]]] Hk'; [reflexivity | reflexivity | reflexivity | lia]. Qed.

Section SemT.
Variable s : snap.
Variable i : nat.
Hypothesis H : WF s.
Hypothesis Hk : s_kind s = KTdd.
Hypothesis Hi : S i < nlevels s.

Let s1 := level_swap_tcore s i.
Let M := swap_nodes_t s i.
Let H1 : WF s1 := tcore_wf s i H Hk Hi.

Notation low := (low s i).
Notation isdep := (isdep s i).
Notation rep3 := (rep3 i).
Notation cof := (bcof s (S i)).

Lemma choice3 : forall c l, choice_ok s c -> c l < 3.
Proof. intros c l Hc. specialize (Hc l). rewrite Hk in Hc. exact Hc. Qed.

(** the result of [reduce] + lookup on the new lower level, evaluated *)
Lemma rep3_sem : forall x y z e c' b, rep3 M x y z e -> b < 3 -> c' (S i) = b ->
  semn s1 (eref e) c' = semn s1 (eref (nth b [x; y; z] x)) c'.
Proof.
  intros x y z e c' b [[[-> ->] ->]|[A [id [nd [-> [E [L C]]]]]]] Hb Hc'.
  - destruct b as [|[|[|b]]]; [reflexivity | reflexivity | reflexivity | lia].
  - simpl eref at 1. apply (semn_node s1 H1 id nd _ c' E). rewrite L, Hc', C. apply pick3. exact Hb.
Qed.

(** a child of a node of the upper level, evaluated: its cofactor w.r.t. the lower level *)
Lemma cof_sem3 : forall id nd c cc b2, find_node s id = Some nd -> nlevel nd = i -> In c (nchildren nd) ->
  b2 < 3 -> cc (S i) = b2 -> semn s (eref c) cc = semn s (eref (cof c b2)) cc.
Proof.
  intros id nd c cc b2 E Hl Hc Hb Hcc.
  destruct (child_cases3 s i H Hk Hi id nd c E Hl Hc)
    as [[_ [_ Sk]]|(cid & cn & g0 & g1 & g2 & -> & Ec & Lc & Cc & _ & _ & _ & _ & B0 & B1 & B2)].
  - rewrite Sk. reflexivity.
  - simpl eref at 1. apply (semn_node s H cid cn _ cc Ec). rewrite Lc, Hcc, Cc.
    destruct b2 as [|[|[|b2]]]; [rewrite B0 | rewrite B1 | rewrite B2 | lia]; reflexivity.
Qed.

Lemma rebuilt_sem3 : forall id nd nn c ca,
  find_node s id = Some nd -> isdep nd -> PositiveMap.find id M = Some nn -> choice_ok s c ->
  nth_error (nchildren nd) (c i) = Some ca ->
  exists eb x, nth_error (nchildren nn) (c (S i)) = Some eb
    /\ ref_ok s (eref x) /\ S i < rlevel s (eref x)
    /\ semn s1 (eref eb) (swap_choice i c) = semn s1 (eref x) (swap_choice i c)
    /\ semn s (eref ca) c = semn s (eref x) c.
Proof.
  intros id nd nn c ca E D Hf Hc Hca.
  destruct (spec_dep (swap_nodes_t_spec s i H Hk Hi) id nd E D)
    as (c0 & c1 & c2 & e0 & e1 & e2 & Hch & Hf' & R0 & R1 & R2).
  change (PositiveMap.find id M = Some (mkNode i [e0; e1; e2] i (nrc nd))) in Hf'.
  rewrite Hf in Hf'. inversion Hf'; subst nn. clear Hf'.
  pose proof (choice3 c i Hc) as Ha. pose proof (choice3 c (S i) Hc) as Hb.
  assert (Hin : In ca (nchildren nd)) by (eapply nth_error_In; exact Hca).
  destruct (bcof_low3 s i H Hk Hi id nd ca (c (S i)) E (proj1 D) Hin Hb) as [Okx [_ Lx]].
  assert (Hsw : swap_choice i c (S i) = c i) by (unfold swap_choice; rewrite swap_idx_Si; reflexivity).
  exists (nth (c (S i)) [e0; e1; e2] e0), (cof ca (c (S i))).
  split; [|split; [exact Okx|split; [exact Lx|split; [|apply (cof_sem3 id nd ca c _ E (proj1 D) Hin Hb eq_refl)]]]].
  - apply pick3. exact Hb.
  - rewrite Hch in Hca.
    destruct (c (S i)) as [|[|[|b]]]; [| | |lia]; cbn [nth].
    + rewrite (rep3_sem _ _ _ e0 _ (c i) R0 Ha Hsw).
      destruct (c i) as [|[|[|a]]]; [| | |lia]; inversion Hca; reflexivity.
    + rewrite (rep3_sem _ _ _ e1 _ (c i) R1 Ha Hsw).
      destruct (c i) as [|[|[|a]]]; [| | |lia]; inversion Hca; reflexivity.
    + rewrite (rep3_sem _ _ _ e2 _ (c i) R2 Ha Hsw).
      destruct (c i) as [|[|[|a]]]; [| | |lia]; inversion Hca; reflexivity.
Qed.

Theorem tcore_sem : forall k r c, ref_ok s r -> choice_ok s c -> nlevels s - rlevel s r <= k ->
  semn s1 r (swap_choice i c) = semn s r c.
Proof.
  intros k r c.
  apply (swapped_val s i H _ _ (rebuilt3_find s i) M (swap_nodes_t_spec s i H Hk Hi)
           N (fun t e c => semn t (eref e) c) (fun _ v => v)) with (e := mkEdge r false).
  - intros e t c0 c' Er. rewrite Er. unfold semn. rewrite !semk_T. reflexivity.
  - intros e id nd ch c0 Er E Hch. rewrite Er. apply (semn_node s H id nd ch c0 E Hch).
  - intros e id nd ch c0 Er E Hch. rewrite Er. apply (semn_node s1 H1 id nd ch c0 E Hch).
  - exact rebuilt_sem3.
Qed.

End SemT.
