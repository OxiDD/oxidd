(** * C08, part T — [level_swap_tcore] keeps a TDD table well-formed

    From the relational specification of the node table after the loop ([swap_nodes_t_spec],
    Mgr/LevelSwapTInv.v): the table is again ordered, reduced (no node with three equal
    children), per-level unique; the variable/level maps are inverse permutations with the
    two levels exchanged. *)

From Coq Require Import List NArith PArith Bool Arith Lia FMapPositive.
From OxiVerif Require Import DD.Table DD.TableProofs Mgr.SortOrder Mgr.SortOrderProofs
  Mgr.LevelSwap Mgr.LevelSwapBase Mgr.LevelSwapInv Mgr.LevelSwapT Mgr.LevelSwapTInv.
Import ListNotations.

(* [Lw : forall c b, In c [c0; c1; c2] -> b < 3 -> low (cof c b)] in the context *)
Ltac lw := match goal with Lw : forall c b, In c _ -> b < 3 -> _ |- _ => apply Lw; [simpl; auto | lia] end.

Section CoreT.
Variable s : snap.
Variable i : nat.
Hypothesis H : WF s.
Hypothesis Hk : s_kind s = KTdd.
Hypothesis Hi : S i < nlevels s.

Let s1 := level_swap_tcore s i.
Let M := swap_nodes_t s i.
Let SP : Spec s i (goodnew3 s i) (rebuilt3 s i) M := swap_nodes_t_spec s i H Hk Hi.

Notation low := (low s i).
Notation isdep := (isdep s i).
Notation rep3 := (rep3 i).
Notation cof := (bcof s (S i)).

Lemma tfind1 : forall id, find_node s1 id = PositiveMap.find id M.
Proof. reflexivity. Qed.

Lemma tnlevels1 : nlevels s1 = nlevels s.
Proof. unfold nlevels, s1, level_swap_tcore. simpl. apply swap_adj_length. Qed.

Lemma tkind1 : s_kind s1 = s_kind s.
Proof. reflexivity. Qed.

(** every stored node of the new table is of one of three sorts *)
Lemma tfind_cases : forall id nd', PositiveMap.find id M = Some nd' ->
  (exists nd, find_node s id = Some nd /\ ~ isdep nd /\ nd' = relabel s i nd)
  \/ (exists nd c0 c1 c2 e0 e1 e2, find_node s id = Some nd /\ isdep nd /\ nchildren nd = [c0; c1; c2]
        /\ nd' = mkNode i [e0; e1; e2] i (nrc nd)
        /\ rep3 M (cof c0 0) (cof c1 0) (cof c2 0) e0
        /\ rep3 M (cof c0 1) (cof c1 1) (cof c2 1) e1
        /\ rep3 M (cof c0 2) (cof c1 2) (cof c2 2) e2)
  \/ (find_node s id = None /\ goodnew3 s i nd').
Proof.
  intros id nd' E.
  destruct (swapped_cases s i _ _ M SP id nd' E) as [C|[[nd [E0 [D R]]]|C]]; [left; exact C | | right; right; exact C].
  right. left. destruct R as (c0 & c1 & c2 & e0 & e1 & e2 & Hc & Hf & R0 & R1 & R2).
  exists nd, c0, c1, c2, e0, e1, e2. rewrite E in Hf. inversion Hf; subst nd'. auto 10.
Qed.

Notation told_stays := (old_stays s i _ _ (rebuilt3_find s i) M SP).

Lemma tref_ok1 : forall r, ref_ok s r -> ref_ok s1 r.
Proof. exact (swapped_ref_ok s i _ _ (rebuilt3_find s i) M SP). Qed.

(** the level of an old reference in the new table *)
Lemma trlevel1 : forall r, ref_ok s r ->
  (rlevel s r = S i /\ rlevel s1 r = i)
  \/ (rlevel s r = i /\ (rlevel s1 r = i \/ rlevel s1 r = S i))
  \/ (rlevel s r <> i /\ rlevel s r <> S i /\ rlevel s1 r = rlevel s r).
Proof. exact (swapped_rlevel s i Hi _ _ (rebuilt3_find s i) M SP). Qed.

Lemma tlow1 : forall e, low e -> ref_ok s1 (eref e) /\ rlevel s1 (eref e) = rlevel s (eref e).
Proof.
  intros e [Hok [_ Hl]]. split; [apply tref_ok1; exact Hok|].
  destruct (trlevel1 _ Hok) as [[A _]|[[A _]|[_ [_ A]]]]; [lia | lia | exact A].
Qed.

(** what the result of [reduce] + lookup looks like in the new table *)
Lemma rep3_props : forall x y z e, rep3 M x y z e -> low x -> low y -> low z ->
  ref_ok s1 (eref e) /\ etag e = false /\ S i <= rlevel s1 (eref e)
  /\ (eq3 x y z -> S i < rlevel s1 (eref e)) /\ (~ eq3 x y z -> rlevel s1 (eref e) = S i).
Proof.
  intros x y z e [[A ->]|[A [id [nd [-> [E [L C]]]]]]] Lx Ly Lz.
  - destruct (tlow1 x Lx) as [B C]. destruct Lx as [_ [T Lv]].
    split; [exact B|]. split; [exact T|]. split; [lia|]. split; [intros _; lia | contradiction].
  - simpl. split; [exists nd; exact E|]. split; [reflexivity|].
    rewrite tfind1, E, L. split; [lia|]. split; [contradiction | reflexivity].
Qed.

Lemma rep3_inj : forall x y z x' y' z' e, rep3 M x y z e -> rep3 M x' y' z' e ->
  low x -> low y -> low z -> low x' -> low y' -> low z' -> x = x' /\ y = y' /\ z = z'.
Proof.
  intros x y z x' y' z' e R R' Lx Ly Lz Lx' Ly' Lz'.
  destruct (rep3_props _ _ _ _ R Lx Ly Lz) as [_ [_ [_ [A B]]]].
  destruct (rep3_props _ _ _ _ R' Lx' Ly' Lz') as [_ [_ [_ [A' B']]]].
  destruct R as [[P ->]|[P [id [nd [-> [E [L C]]]]]]]; destruct R' as [[P' Q']|[P' [id' [nd' [Q' [E' [L' C']]]]]]].
  - destruct P as [-> ->]. destruct P' as [-> ->]. subst. auto.
  - exfalso. specialize (A P). specialize (B' P'). lia.
  - exfalso. specialize (A' P'). specialize (B P). lia.
  - inversion Q'; subst id'. rewrite E in E'. inversion E'; subst nd'. rewrite C in C'.
    inversion C'. auto.
Qed.

(** ** well-formedness of the new table *)

(** the nine cofactors of a node to rewrite are below both levels *)
Lemma dep_lows3 : forall id nd c0 c1 c2, find_node s id = Some nd -> isdep nd -> nchildren nd = [c0; c1; c2] ->
  forall c b, In c [c0; c1; c2] -> b < 3 -> low (cof c b).
Proof.
  intros id nd c0 c1 c2 E0 [Dl _] Hc c b Hin Hb.
  apply (bcof_low3 s i H Hk Hi id nd c b E0 Dl); [rewrite Hc; exact Hin | exact Hb].
Qed.

Lemma twf1_child : forall id nd e, find_node s1 id = Some nd -> In e (nchildren nd) ->
  ref_ok s1 (eref e) /\ nlevel nd < rlevel s1 (eref e).
Proof.
  intros id nd' e E He. rewrite tfind1 in E.
  destruct (tfind_cases id nd' E)
    as [[nd [E0 [D ->]]]|[(nd & c0 & c1 & c2 & e0 & e1 & e2 & E0 & D & Hc & -> & R0 & R1 & R2)|[E0 G]]].
  - rewrite relabel_children in He.
    apply (swapped_child_old s i H Hi _ _ (rebuilt3_find s i) M SP id nd e E0 D He).
  - simpl in He. pose proof (dep_lows3 id nd c0 c1 c2 E0 D Hc) as Lw.
    assert (Q : forall x y z e', rep3 M x y z e' -> low x -> low y -> low z ->
                  ref_ok s1 (eref e') /\ i < rlevel s1 (eref e')).
    { intros x y z e' R Lx Ly Lz. destruct (rep3_props _ _ _ _ R Lx Ly Lz) as [A [_ [B _]]]. split; [exact A | lia]. }
    destruct He as [<-|[<-|[<-|[]]]].
    + apply (Q _ _ _ _ R0); lw.
    + apply (Q _ _ _ _ R1); lw.
    + apply (Q _ _ _ _ R2); lw.
  - destruct G as [Gl [_ [x [y [z [Gc [_ [Lx [Ly Lz]]]]]]]]]. rewrite Gc in He. rewrite Gl.
    assert (Q : forall g, low g -> ref_ok s1 (eref g) /\ S i < rlevel s1 (eref g)).
    { intros g Lg. destruct (tlow1 _ Lg) as [A B]. destruct Lg as [_ [_ Lv]]. split; [exact A | lia]. }
    destruct He as [<-|[<-|[<-|[]]]]; apply Q; assumption.
Qed.

(** the rewritten children of a node determine its old children *)
Lemma dep_children_inj3 : forall id nd c0 c1 c2 e0 e1 e2 id' nd' d0 d1 d2,
  find_node s id = Some nd -> isdep nd -> nchildren nd = [c0; c1; c2] ->
  rep3 M (cof c0 0) (cof c1 0) (cof c2 0) e0 -> rep3 M (cof c0 1) (cof c1 1) (cof c2 1) e1 ->
  rep3 M (cof c0 2) (cof c1 2) (cof c2 2) e2 ->
  find_node s id' = Some nd' -> isdep nd' -> nchildren nd' = [d0; d1; d2] ->
  rep3 M (cof d0 0) (cof d1 0) (cof d2 0) e0 -> rep3 M (cof d0 1) (cof d1 1) (cof d2 1) e1 ->
  rep3 M (cof d0 2) (cof d1 2) (cof d2 2) e2 ->
  c0 = d0 /\ c1 = d1 /\ c2 = d2.
Proof.
  intros id nd c0 c1 c2 e0 e1 e2 id' nd' d0 d1 d2 E D Hc R0 R1 R2 E' D' Hd Q0 Q1 Q2.
  pose proof (dep_lows3 id nd c0 c1 c2 E D Hc) as Lw.
  pose proof (dep_lows3 id' nd' d0 d1 d2 E' D' Hd) as Lw'.
  assert (J : forall b e, b < 3 -> rep3 M (cof c0 b) (cof c1 b) (cof c2 b) e -> rep3 M (cof d0 b) (cof d1 b) (cof d2 b) e ->
                cof c0 b = cof d0 b /\ cof c1 b = cof d1 b /\ cof c2 b = cof d2 b).
  { intros b e Hb R Q. apply (rep3_inj _ _ _ _ _ _ e R Q);
      first [solve [apply Lw; [simpl; auto | lia]] | solve [apply Lw'; [simpl; auto | lia]]]. }
  destruct (J 0 e0 ltac:(lia) R0 Q0) as [X0 [Y0 Z0]].
  destruct (J 1 e1 ltac:(lia) R1 Q1) as [X1 [Y1 Z1]].
  destruct (J 2 e2 ltac:(lia) R2 Q2) as [X2 [Y2 Z2]].
  destruct D as [Dl _]. destruct D' as [Dl' _].
  assert (K : forall c d, In c (nchildren nd) -> In d (nchildren nd') ->
                cof c 0 = cof d 0 -> cof c 1 = cof d 1 -> cof c 2 = cof d 2 -> c = d).
  { intros c d Hin Hin'. apply (bcof_inj3 s i H Hk Hi id nd c id' nd' d E Dl Hin E' Dl' Hin'). }
  rewrite Hc, Hd in K.
  split; [|split]; apply K; simpl; auto.
Qed.

(** one of the rewritten children lies on the new lower level *)
Lemma dep_touches3 : forall id nd c0 c1 c2 e0 e1 e2,
  find_node s id = Some nd -> isdep nd -> nchildren nd = [c0; c1; c2] ->
  rep3 M (cof c0 0) (cof c1 0) (cof c2 0) e0 -> rep3 M (cof c0 1) (cof c1 1) (cof c2 1) e1 ->
  rep3 M (cof c0 2) (cof c1 2) (cof c2 2) e2 ->
  rlevel s1 (eref e0) = S i \/ rlevel s1 (eref e1) = S i \/ rlevel s1 (eref e2) = S i.
Proof.
  intros id nd c0 c1 c2 e0 e1 e2 E D Hc R0 R1 R2.
  pose proof (dep_lows3 id nd c0 c1 c2 E D Hc) as Lw.
  assert (N : forall b e, b < 3 -> rep3 M (cof c0 b) (cof c1 b) (cof c2 b) e ->
                ~ eq3 (cof c0 b) (cof c1 b) (cof c2 b) -> rlevel s1 (eref e) = S i).
  { intros b e Hb R Hne. apply (rep3_props _ _ _ _ R); try lw. exact Hne. }
  destruct (eq3_dec (cof c0 0) (cof c1 0) (cof c2 0)) as [Q0|Q0]; [|left; apply (N 0 e0); auto].
  destruct (eq3_dec (cof c0 1) (cof c1 1) (cof c2 1)) as [Q1|Q1]; [|right; left; apply (N 1 e1); auto].
  destruct (eq3_dec (cof c0 2) (cof c1 2) (cof c2 2)) as [Q2|Q2]; [|right; right; apply (N 2 e2); auto].
  exfalso. destruct (tdd_children s H Hk id nd E) as (a & b & c & Hab & Hne). rewrite Hc in Hab.
  inversion Hab; subst a b c. apply Hne. destruct D as [Dl _].
  destruct Q0 as [A0 B0]. destruct Q1 as [A1 B1]. destruct Q2 as [A2 B2].
  assert (K : forall c d, In c (nchildren nd) -> In d (nchildren nd) ->
                cof c 0 = cof d 0 -> cof c 1 = cof d 1 -> cof c 2 = cof d 2 -> c = d).
  { intros c d Hin Hin'. apply (bcof_inj3 s i H Hk Hi id nd c id nd d E Dl Hin E Dl Hin'). }
  rewrite Hc in K. split; apply K; simpl; auto.
Qed.

(** the three rewritten children are not all equal *)
Lemma dep_reduced3 : forall id nd c0 c1 c2 e0 e1 e2,
  find_node s id = Some nd -> isdep nd -> nchildren nd = [c0; c1; c2] ->
  rep3 M (cof c0 0) (cof c1 0) (cof c2 0) e0 -> rep3 M (cof c0 1) (cof c1 1) (cof c2 1) e1 ->
  rep3 M (cof c0 2) (cof c1 2) (cof c2 2) e2 -> ~ eq3 e0 e1 e2.
Proof.
  intros id nd c0 c1 c2 e0 e1 e2 E D Hc R0 R1 R2 [A B]. subst e1 e2.
  pose proof (dep_lows3 id nd c0 c1 c2 E D Hc) as Lw.
  destruct (rep3_inj _ _ _ _ _ _ e0 R0 R1) as [X1 [Y1 Z1]]; try lw.
  destruct (rep3_inj _ _ _ _ _ _ e0 R1 R2) as [X2 [Y2 Z2]]; try lw.
  apply (dep_not_all3 s i H Hk Hi id nd c0 c1 c2 E D Hc). unfold eq3. auto 10.
Qed.

Lemma twf1_unique : forall id1 id2 n1 n2,
  find_node s1 id1 = Some n1 -> find_node s1 id2 = Some n2 ->
  nlevel n1 = nlevel n2 -> nchildren n1 = nchildren n2 -> id1 = id2.
Proof.
  apply (swapped_unique s i H Hi _ _ (rebuilt3_find s i) (goodnew3_level s i) M SP).
  - intros id nd nd' E D E'.
    destruct (spec_dep SP id nd E D) as (c0 & c1 & c2 & e0 & e1 & e2 & Hc & Hf & R0 & R1 & R2).
    rewrite E' in Hf. inversion Hf; subst nd'.
    destruct (dep_touches3 id nd c0 c1 c2 e0 e1 e2 E D Hc R0 R1 R2) as [T|[T|T]];
      [exists e0 | exists e1 | exists e2]; (split; [simpl; auto | exact T]).
  - intros id1 m1 n1 id2 m2 n2 F1 D1 E1 F2 D2 E2 Hch.
    destruct (spec_dep SP id1 m1 F1 D1) as (c0 & c1 & c2 & e0 & e1 & e2 & C1 & Hf1 & R0 & R1 & R2).
    destruct (spec_dep SP id2 m2 F2 D2) as (d0 & d1 & d2 & f0 & f1 & f2 & C2 & Hf2 & Q0 & Q1 & Q2).
    rewrite E1 in Hf1. rewrite E2 in Hf2. inversion Hf1; subst n1. inversion Hf2; subst n2.
    simpl in Hch. inversion Hch; subst f0 f1 f2.
    destruct (dep_children_inj3 id1 m1 c0 c1 c2 e0 e1 e2 id2 m2 d0 d1 d2 F1 D1 C1 R0 R1 R2 F2 D2 C2 Q0 Q1 Q2)
      as [X [Y Z]].
    congruence.
Qed.

Theorem tcore_wf : WF s1.
Proof.
  apply (swapped_wf s i H Hi _ _ (rebuilt3_find s i) (goodnew3_level s i) M SP); change (swapped s i M) with s1.
  - (* arity *)
    intros id nd' E. rewrite tfind1 in E. rewrite Hk. simpl arity.
    destruct (tfind_cases id nd' E)
      as [[nd [E0 [D ->]]]|[(nd & c0 & c1 & c2 & e0 & e1 & e2 & E0 & D & Hc & -> & R0 & R1 & R2)|[E0 G]]].
    + rewrite relabel_children. pose proof (wf_arity s H id nd E0) as A. rewrite Hk in A. exact A.
    + reflexivity.
    + destruct G as [_ [_ [x [y [z [Gc _]]]]]]. rewrite Gc. reflexivity.
  - exact twf1_child.
  - (* reduced *)
    intros id nd' E. rewrite tfind1 in E. unfold reduced. rewrite tkind1, Hk.
    destruct (tfind_cases id nd' E)
      as [[nd [E0 [D ->]]]|[(nd & c0 & c1 & c2 & e0 & e1 & e2 & E0 & D & Hc & -> & R0 & R1 & R2)|[E0 G]]].
    + rewrite relabel_children. pose proof (wf_reduced s H id nd E0) as Hr. unfold reduced in Hr.
      rewrite Hk in Hr. exact Hr.
    + simpl. rewrite all_same_triple. apply (dep_reduced3 id nd c0 c1 c2 e0 e1 e2 E0 D Hc R0 R1 R2).
    + destruct G as [_ [_ [x [y [z [Gc [Gne _]]]]]]]. rewrite Gc, all_same_triple. exact Gne.
  - (* tags *)
    intros _ id nd' e E He. rewrite tfind1 in E.
    destruct (tfind_cases id nd' E)
      as [[nd [E0 [D ->]]]|[(nd & c0 & c1 & c2 & e0 & e1 & e2 & E0 & D & Hc & -> & R0 & R1 & R2)|[E0 G]]].
    + rewrite relabel_children in He. apply (tdd_tag s H Hk id nd e E0 He).
    + simpl in He. pose proof (dep_lows3 id nd c0 c1 c2 E0 D Hc) as Lw.
      destruct He as [<-|[<-|[<-|[]]]].
      * apply (rep3_props _ _ _ _ R0); lw.
      * apply (rep3_props _ _ _ _ R1); lw.
      * apply (rep3_props _ _ _ _ R2); lw.
    + destruct G as [_ [_ [x [y [z [Gc [_ [[_ [Tx _]] [[_ [Ty _]] [_ [Tz _]]]]]]]]]]]. rewrite Gc in He.
      destruct He as [<-|[<-|[<-|[]]]]; assumption.
  - exact twf1_unique.
Qed.

End CoreT.
