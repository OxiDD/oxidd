(** * C08, part B — [level_swap_core] keeps the table well-formed

    From the relational specification [Spec] of the node table after the loop
    (Mgr/LevelSwapInv.v): the table is again ordered, reduced, per-level
    unique; the variable/level maps are inverse permutations with the two
    levels exchanged.  BDD and MTBDD kinds ([bink]). *)

From Coq Require Import List NArith PArith Bool Arith Lia FMapPositive.
From OxiVerif Require Import DD.Table DD.TableProofs Mgr.SortOrder Mgr.SortOrderProofs
  Mgr.LevelSwap Mgr.LevelSwapBase Mgr.LevelSwapInv.
Import ListNotations.

Section Core.
Variable s : snap.
Variable i : nat.
Hypothesis H : WF s.
Hypothesis Hk : bink (s_kind s).
Hypothesis Hi : S i < nlevels s.

Let s1 := level_swap_core s i.
Let M := swap_nodes s i.
Let SP : Spec s i (goodnew s i) (rebuilt s i) M := swap_nodes_spec s i H Hk Hi.

Notation low := (low s i).
Notation isdep := (isdep s i).
Notation rep := (rep i).

Lemma find1 : forall id, find_node s1 id = PositiveMap.find id M.
Proof. reflexivity. Qed.

Lemma nlevels1 : nlevels s1 = nlevels s.
Proof. unfold nlevels, s1, level_swap_core. simpl. apply swap_adj_length. Qed.

Lemma term_val1 : forall t, term_val s1 t = term_val s t.
Proof. reflexivity. Qed.

(** every stored node of the new table is of one of three sorts *)
Lemma find_cases : forall id nd', PositiveMap.find id M = Some nd' ->
  (exists nd, find_node s id = Some nd /\ ~ isdep nd /\ nd' = relabel s i nd)
  \/ (exists nd c0 c1 e0 e1, find_node s id = Some nd /\ isdep nd /\ nchildren nd = [c0; c1]
        /\ nd' = mkNode i [e0; e1] i (nrc nd)
        /\ rep M (bcof s (S i) c0 0) (bcof s (S i) c1 0) e0
        /\ rep M (bcof s (S i) c0 1) (bcof s (S i) c1 1) e1)
  \/ (find_node s id = None /\ goodnew s i nd').
Proof.
  intros id nd' E.
  destruct (swapped_cases s i _ _ M SP id nd' E) as [C|[[nd [E0 [D R]]]|C]]; [left; exact C | | right; right; exact C].
  right. left. destruct R as [c0 [c1 [e0 [e1 [Hc [Hf [R0 R1]]]]]]].
  exists nd, c0, c1, e0, e1. rewrite E in Hf. inversion Hf; subst nd'. auto 10.
Qed.

Notation old_stays := (old_stays s i _ _ (rebuilt_find s i) M SP).

Lemma ref_ok1 : forall r, ref_ok s r -> ref_ok s1 r.
Proof. exact (swapped_ref_ok s i _ _ (rebuilt_find s i) M SP). Qed.

(** the level of an old reference in the new table *)
Lemma rlevel1 : forall r, ref_ok s r ->
  (rlevel s r = S i /\ rlevel s1 r = i)
  \/ (rlevel s r = i /\ (rlevel s1 r = i \/ rlevel s1 r = S i))
  \/ (rlevel s r <> i /\ rlevel s r <> S i /\ rlevel s1 r = rlevel s r).
Proof. exact (swapped_rlevel s i Hi _ _ (rebuilt_find s i) M SP). Qed.

Lemma low1 : forall e, low e -> ref_ok s1 (eref e) /\ rlevel s1 (eref e) = rlevel s (eref e).
Proof.
  intros e [Hok [_ Hl]]. split; [apply ref_ok1; exact Hok|].
  destruct (rlevel1 _ Hok) as [[A _]|[[A _]|[_ [_ A]]]]; [lia | lia | exact A].
Qed.

(** what the result of [reduce] + lookup looks like in the new table *)
Lemma rep_props : forall x y e, rep M x y e -> low x -> low y ->
  ref_ok s1 (eref e) /\ etag e = false /\ S i <= rlevel s1 (eref e)
  /\ (x = y -> S i < rlevel s1 (eref e)) /\ (x <> y -> rlevel s1 (eref e) = S i).
Proof.
  intros x y e [[A ->]|[A [id [nd [-> [E [L C]]]]]]] Lx Ly.
  - destruct (low1 x Lx) as [B C]. destruct Lx as [_ [T Lv]].
    split; [exact B|]. split; [exact T|]. split; [lia|]. split; [intros _; lia | contradiction].
  - simpl. split; [exists nd; exact E|]. split; [reflexivity|].
    rewrite find1, E, L. split; [lia|]. split; [contradiction | reflexivity].
Qed.

Lemma rep_inj : forall x y x' y' e, rep M x y e -> rep M x' y' e ->
  low x -> low y -> low x' -> low y' -> x = x' /\ y = y'.
Proof.
  intros x y x' y' e R R' Lx Ly Lx' Ly'.
  destruct (rep_props _ _ _ R Lx Ly) as [_ [_ [_ [A B]]]].
  destruct (rep_props _ _ _ R' Lx' Ly') as [_ [_ [_ [A' B']]]].
  destruct R as [[P ->]|[P [id [nd [-> [E [L C]]]]]]]; destruct R' as [[P' Q']|[P' [id' [nd' [Q' [E' [L' C']]]]]]].
  - subst. auto.
  - exfalso. specialize (A P). specialize (B' P'). lia.
  - exfalso. specialize (A' P'). specialize (B P). lia.
  - inversion Q'; subst id'. rewrite E in E'. inversion E'; subst nd'. rewrite C in C'.
    inversion C'. auto.
Qed.

(** ** well-formedness of the new table *)

Lemma wf1_child : forall id nd e, find_node s1 id = Some nd -> In e (nchildren nd) ->
  ref_ok s1 (eref e) /\ nlevel nd < rlevel s1 (eref e).
Proof.
  intros id nd' e E He. rewrite find1 in E.
  destruct (find_cases id nd' E) as [[nd [E0 [D ->]]]|[[nd [c0 [c1 [e0 [e1 [E0 [D [Hc [-> [R0 R1]]]]]]]]]]|[E0 G]]].
  - rewrite relabel_children in He.
    apply (swapped_child_old s i H Hi _ _ (rebuilt_find s i) M SP id nd e E0 D He).
  - simpl in He. destruct D as [Dl Dd].
    assert (Hin0 : In c0 (nchildren nd)) by (rewrite Hc; simpl; auto).
    assert (Hin1 : In c1 (nchildren nd)) by (rewrite Hc; simpl; auto).
    pose proof (bcof_low s i H Hk Hi id nd c0 0 E0 Dl Hin0 ltac:(lia)) as L00.
    pose proof (bcof_low s i H Hk Hi id nd c1 0 E0 Dl Hin1 ltac:(lia)) as L10.
    pose proof (bcof_low s i H Hk Hi id nd c0 1 E0 Dl Hin0 ltac:(lia)) as L01.
    pose proof (bcof_low s i H Hk Hi id nd c1 1 E0 Dl Hin1 ltac:(lia)) as L11.
    destruct He as [<-|[<-|[]]].
    + destruct (rep_props _ _ _ R0 L00 L10) as [A [_ [B _]]]. split; [exact A | simpl; lia].
    + destruct (rep_props _ _ _ R1 L01 L11) as [A [_ [B _]]]. split; [exact A | simpl; lia].
  - destruct G as [Gl [_ [x [y [Gc [_ [Lx Ly]]]]]]]. rewrite Gc in He. rewrite Gl.
    destruct He as [<-|[<-|[]]].
    + destruct (low1 _ Lx) as [A B]. destruct Lx as [_ [_ Lv]]. split; [exact A | lia].
    + destruct (low1 _ Ly) as [A B]. destruct Ly as [_ [_ Lv]]. split; [exact A | lia].
Qed.

(** the four cofactors of a node to rewrite are below both levels *)
Lemma dep_lows : forall id nd c0 c1, find_node s id = Some nd -> isdep nd -> nchildren nd = [c0; c1] ->
  low (bcof s (S i) c0 0) /\ low (bcof s (S i) c1 0) /\ low (bcof s (S i) c0 1) /\ low (bcof s (S i) c1 1).
Proof.
  intros id nd c0 c1 E0 [Dl _] Hc.
  assert (Hin0 : In c0 (nchildren nd)) by (rewrite Hc; simpl; auto).
  assert (Hin1 : In c1 (nchildren nd)) by (rewrite Hc; simpl; auto).
  repeat split; eapply (bcof_low s i H Hk Hi id nd); eauto.
Qed.

(** the rewritten children of a node determine its old children *)
Lemma dep_children_inj : forall id nd c0 c1 e0 e1 id' nd' d0 d1,
  find_node s id = Some nd -> isdep nd -> nchildren nd = [c0; c1] ->
  rep M (bcof s (S i) c0 0) (bcof s (S i) c1 0) e0 -> rep M (bcof s (S i) c0 1) (bcof s (S i) c1 1) e1 ->
  find_node s id' = Some nd' -> isdep nd' -> nchildren nd' = [d0; d1] ->
  rep M (bcof s (S i) d0 0) (bcof s (S i) d1 0) e0 -> rep M (bcof s (S i) d0 1) (bcof s (S i) d1 1) e1 ->
  c0 = d0 /\ c1 = d1.
Proof.
  intros id nd c0 c1 e0 e1 id' nd' d0 d1 E D Hc R0 R1 E' D' Hd Q0 Q1.
  destruct (dep_lows id nd c0 c1 E D Hc) as [A [B [C F]]].
  destruct (dep_lows id' nd' d0 d1 E' D' Hd) as [A' [B' [C' F']]].
  destruct (rep_inj _ _ _ _ _ R0 Q0 A B A' B') as [X0 Y0].
  destruct (rep_inj _ _ _ _ _ R1 Q1 C F C' F') as [X1 Y1].
  destruct D as [Dl _]. destruct D' as [Dl' _].
  split.
  - apply (bcof_inj s i H Hk Hi id nd c0 id' nd' d0 E Dl ltac:(rewrite Hc; simpl; auto)
             E' Dl' ltac:(rewrite Hd; simpl; auto) X0 X1).
  - apply (bcof_inj s i H Hk Hi id nd c1 id' nd' d1 E Dl ltac:(rewrite Hc; simpl; auto)
             E' Dl' ltac:(rewrite Hd; simpl; auto) Y0 Y1).
Qed.

(** one of the rewritten children lies on the new lower level *)
Lemma dep_touches : forall id nd c0 c1 e0 e1,
  find_node s id = Some nd -> isdep nd -> nchildren nd = [c0; c1] ->
  rep M (bcof s (S i) c0 0) (bcof s (S i) c1 0) e0 -> rep M (bcof s (S i) c0 1) (bcof s (S i) c1 1) e1 ->
  rlevel s1 (eref e0) = S i \/ rlevel s1 (eref e1) = S i.
Proof.
  intros id nd c0 c1 e0 e1 E D Hc R0 R1.
  destruct (dep_lows id nd c0 c1 E D Hc) as [A [B [C F]]].
  destruct (rep_props _ _ _ R0 A B) as [_ [_ [_ [_ N0]]]].
  destruct (rep_props _ _ _ R1 C F) as [_ [_ [_ [_ N1]]]].
  destruct (edge_eqb (bcof s (S i) c0 0) (bcof s (S i) c1 0)) eqn:Q0.
  2:{ left. apply N0. intros Heq. apply edge_eqb_eq in Heq. congruence. }
  destruct (edge_eqb (bcof s (S i) c0 1) (bcof s (S i) c1 1)) eqn:Q1.
  2:{ right. apply N1. intros Heq. apply edge_eqb_eq in Heq. congruence. }
  exfalso. apply edge_eqb_eq in Q0. apply edge_eqb_eq in Q1.
  destruct (bdd_children s H Hk id nd E) as [a [b [Hab Hne]]]. rewrite Hc in Hab.
  inversion Hab; subst a b. apply Hne. destruct D as [Dl _].
  apply (bcof_inj s i H Hk Hi id nd c0 id nd c1 E Dl ltac:(rewrite Hc; simpl; auto)
           E Dl ltac:(rewrite Hc; simpl; auto) Q0 Q1).
Qed.

Lemma wf1_unique : forall id1 id2 n1 n2,
  find_node s1 id1 = Some n1 -> find_node s1 id2 = Some n2 ->
  nlevel n1 = nlevel n2 -> nchildren n1 = nchildren n2 -> id1 = id2.
Proof.
  apply (swapped_unique s i H Hi _ _ (rebuilt_find s i) (goodnew_level s i) M SP).
  - intros id nd nd' E D E'. destruct (spec_dep SP id nd E D) as [c0 [c1 [e0 [e1 [Hc [Hf [R0 R1]]]]]]].
    rewrite E' in Hf. inversion Hf; subst nd'.
    destruct (dep_touches id nd c0 c1 e0 e1 E D Hc R0 R1) as [T|T]; [exists e0 | exists e1];
      (split; [simpl; auto | exact T]).
  - intros id1 m1 n1 id2 m2 n2 F1 D1 E1 F2 D2 E2 Hch.
    destruct (spec_dep SP id1 m1 F1 D1) as [c0 [c1 [e0 [e1 [C1 [Hf1 [R0 R1]]]]]]].
    destruct (spec_dep SP id2 m2 F2 D2) as [d0 [d1 [f0 [f1 [C2 [Hf2 [Q0 Q1]]]]]]].
    rewrite E1 in Hf1. rewrite E2 in Hf2. inversion Hf1; subst n1. inversion Hf2; subst n2.
    simpl in Hch. inversion Hch; subst f0 f1.
    destruct (dep_children_inj id1 m1 c0 c1 e0 e1 id2 m2 d0 d1 F1 D1 C1 R0 R1 F2 D2 C2 Q0 Q1) as [X Y].
    congruence.
Qed.

Theorem core_wf : WF s1.
Proof.
  apply (swapped_wf s i H Hi _ _ (rebuilt_find s i) (goodnew_level s i) M SP).
  - (* arity *)
    intros id nd' E. rewrite (bink_arity _ Hk).
    destruct (find_cases id nd' E) as [[nd [E0 [D ->]]]|[[nd [c0 [c1 [e0 [e1 [E0 [D [Hc [-> [R0 R1]]]]]]]]]]|[E0 G]]].
    + rewrite relabel_children. pose proof (wf_arity s H id nd E0) as A. rewrite (bink_arity _ Hk) in A. exact A.
    + reflexivity.
    + destruct G as [_ [_ [x [y [Gc _]]]]]. rewrite Gc. reflexivity.
  - exact wf1_child.
  - (* reduced *)
    intros id nd' E. apply (bink_reduced s1 _ Hk).
    destruct (find_cases id nd' E) as [[nd [E0 [D ->]]]|[[nd [c0 [c1 [e0 [e1 [E0 [D [Hc [-> [R0 R1]]]]]]]]]]|[E0 G]]].
    + rewrite relabel_children. apply (bink_reduced s _ Hk). apply (wf_reduced s H id nd E0).
    + simpl. rewrite all_same_pair. intros ->.
      destruct (dep_lows id nd c0 c1 E0 D Hc) as [A [B [C F]]].
      destruct (rep_inj _ _ _ _ _ R0 R1 A B C F) as [X Y].
      apply (dep_not_both s i H Hk Hi id nd c0 c1 E0 D Hc). auto.
    + destruct G as [_ [_ [x [y [Gc [Gne _]]]]]]. rewrite Gc, all_same_pair. exact Gne.
  - (* tags *)
    intros _ id nd' e E He.
    destruct (find_cases id nd' E) as [[nd [E0 [D ->]]]|[[nd [c0 [c1 [e0 [e1 [E0 [D [Hc [-> [R0 R1]]]]]]]]]]|[E0 G]]].
    + rewrite relabel_children in He. apply (bdd_tag s H Hk id nd e E0 He).
    + simpl in He. destruct (dep_lows id nd c0 c1 E0 D Hc) as [A [B [C F]]].
      destruct He as [<-|[<-|[]]].
      * apply (rep_props _ _ _ R0 A B).
      * apply (rep_props _ _ _ R1 C F).
    + destruct G as [_ [_ [x [y [Gc [_ [[_ [Tx _]] [_ [Ty _]]]]]]]]]. rewrite Gc in He.
      destruct He as [<-|[<-|[]]]; assumption.
  - exact wf1_unique.
Qed.

End Core.
