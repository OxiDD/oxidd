(** * C08, part Z — the tautology chain around a reordering, and [level_swap_z]

    [Manager::reorder] on a ZBDD manager = [pre_reorder_mut] ([zchain_drop]) ; the closure ;
    [post_reorder_mut] ([zchain_rebuild] = [ztaut_chain], DD/ZbddVars.v).
    - [zchain_drop_sub]: dropping the chain removes unreferenced nodes only ([subsnap]):
      [ZbddOK] is kept, every reference that is left keeps its view;
      [zchain_drop_removed]: what disappears is a chain node (both children equal) that
      nothing in the remaining table refers to;
    - [zchain_rebuild_ok]: rebuilding only adds nodes ([extends]), keeps [ZbddOK], and the
      chain [taut(0) .. taut(n)] is complete again, [taut(l)] denoting all subsets of the
      levels [l ..] ([ztaut_chain_ok]);
    - [level_swap_z_*]: the composition drop ; swap ; rebuild, i.e. what the harness op
      LEVELDOWN performs on a ZBDD manager.  An edge "survives" if it is stored after the
      drop and after the swap (a dropped chain node's id may be re-used by a created node, so
      "stored before and at the end" would not identify a node); handles survive. *)

From Coq Require Import List NArith PArith Bool Arith Lia FMapPositive.
From OxiVerif Require Import DD.Table DD.TableExtra DD.TableProofs DD.Canon DD.CanonZbdd DD.Build DD.BuildProofs
  DD.Apply DD.ApplyProofs DD.FamSpec DD.FamSpecProofs DD.ZbddOps DD.ZbddOpsProofs DD.PickInsert
  DD.ZbddVars DD.ZbddVarsProofs
  Mgr.SortOrder Mgr.SortOrderProofs
  Mgr.LevelSwap Mgr.LevelSwapBase Mgr.LevelSwapSem Mgr.LevelSwapProofs
  Mgr.LevelSwapZ Mgr.LevelSwapZSem Mgr.LevelSwapZSub Mgr.LevelSwapZProofs.
Import ListNotations.

(** ** [ZbddOK] and evaluation along [subsnap] / [extends] *)

Lemma subsnap_ok : forall s s', ZbddOK s -> subsnap s s' -> ZbddOK s'.
Proof.
  intros s s' B X. constructor.
  - apply (subsnap_wf s s' (zo_wf s B) X).
  - rewrite (sub_kind _ _ X). apply (zo_kind s B).
  - intros t v. rewrite (sub_term_val _ _ t X). apply (zo_codes s B).
  - destruct (zo_empty s B) as [t E]. exists t. rewrite (sub_term_val _ _ t X). exact E.
  - destruct (zo_base s B) as [t E]. exists t. rewrite (sub_term_val _ _ t X). exact E.
Qed.

Lemma asg_choice_l2v : forall s s' a, s_l2v s' = s_l2v s -> forall l, asg_choice s' a l = asg_choice s a l.
Proof. intros s s' a E l. unfold asg_choice. rewrite E. reflexivity. Qed.

Lemma sem_edge_choice_ext : forall s e c c', s_kind s = KZbdd -> (forall l, c l = c' l) ->
  sem_edge s e c = sem_edge s e c'.
Proof.
  intros s e c c' Hk Hcc. rewrite !(sem_edge_z s _ _ Hk). f_equal. unfold Zv.
  apply semz_ext. intros l _. apply Hcc.
Qed.

Lemma eval_vars_sub : forall s s' e a, subsnap s s' -> s_kind s = KZbdd -> ref_ok s' (eref e) ->
  eval_vars s' e a = eval_vars s e a.
Proof.
  intros s s' e a X Hk Ok. unfold eval_vars.
  rewrite (subsnap_sem_edge s s' e _ X Hk Ok).
  apply (sem_edge_choice_ext s e _ _ Hk). apply asg_choice_l2v. apply (sub_l2v _ _ X).
Qed.

Lemma sem_edge_ext_z : forall s s' e c, WF s -> s_kind s = KZbdd -> extends s s' -> ref_ok s (eref e) ->
  sem_edge s' e c = sem_edge s e c.
Proof.
  intros s s' e c H Hk X Ok. unfold sem_edge. rewrite (ext_kind _ _ X), Hk, (ext_nlevels _ _ X).
  rewrite (semz_extends s s' H X _ _ _ _ Ok). reflexivity.
Qed.

Lemma eval_vars_ext : forall s s' e a, WF s -> s_kind s = KZbdd -> extends s s' -> ref_ok s (eref e) ->
  eval_vars s' e a = eval_vars s e a.
Proof.
  intros s s' e a H Hk X Ok. unfold eval_vars.
  rewrite (sem_edge_ext_z s s' e _ H Hk X Ok).
  apply (sem_edge_choice_ext s e _ _ Hk). apply asg_choice_l2v. apply (ext_l2v _ _ X).
Qed.

Lemma set_levels_l2v : forall s s' a, s_l2v s' = s_l2v s -> set_levels s' a = set_levels s a.
Proof.
  intros s s' a E. unfold set_levels, nlevels. rewrite E.
  apply true_levels_ext. intros l _. apply asg_choice_l2v. exact E.
Qed.

(** ** [zchain_drop] *)

Lemma set_nodes_same : forall s, set_nodes s (s_nodes s) = s.
Proof. intros [k m t v l h]. reflexivity. Qed.

Lemma drop_loop_sub : forall ids s, WF s ->
  subsnap s (set_nodes s (zchain_drop_loop (s_nodes s) (s_handles s) ids)).
Proof.
  induction ids as [|id r IH]; intros s H; simpl.
  - rewrite set_nodes_same. apply subsnap_refl. exact H.
  - destruct (referenced (s_nodes s) (s_handles s) id) eqn:R.
    + rewrite set_nodes_same. apply subsnap_refl. exact H.
    + assert (X : subsnap s (without s [id])).
      { apply (without_subsnap s [id] H). intros x [<-|[]]. exact R. }
      pose proof (subsnap_wf _ _ H X) as H'.
      apply (subsnap_trans _ _ _ X). apply (IH (without s [id]) H').
Qed.

Theorem zchain_drop_sub : forall s, WF s -> subsnap s (zchain_drop s).
Proof.
  intros s H. unfold zchain_drop. destruct (zchain_ids s) as [ids|]; [|apply subsnap_refl; exact H].
  apply (drop_loop_sub ids s H).
Qed.

Theorem zchain_drop_ok : forall s, ZbddOK s -> ZbddOK (zchain_drop s).
Proof. intros s B. apply (subsnap_ok s _ B). apply zchain_drop_sub. apply (zo_wf s B). Qed.

(** the ids [ztaut_find] lists belong to nodes with two equal children *)
Lemma ztaut_find_shape : forall m cnt e acc id,
  In id (ztaut_find m cnt e acc) ->
  In id acc \/ exists nd x, PositiveMap.find id m = Some nd /\ nchildren nd = [x; x].
Proof.
  intros m. induction cnt as [|c IH]; intros e acc id Hin; simpl in Hin; [left; exact Hin|].
  destruct (find_at m c [e; e]) as [k|] eqn:F; [|left; exact Hin].
  destruct (IH _ _ _ Hin) as [[<-|A]|A]; [|left; exact A | right; exact A].
  right. destruct (find_at_some _ _ _ _ F) as [nd [A [_ C]]]. exists nd, e. auto.
Qed.

Lemma drop_loop_find : forall ids m hs id,
  PositiveMap.find id (zchain_drop_loop m hs ids) = None -> PositiveMap.find id m = None \/ In id ids.
Proof.
  induction ids as [|x r IH]; intros m hs id E; simpl in E; [left; exact E|].
  destruct (referenced m hs x); [left; exact E|].
  destruct (IH _ _ _ E) as [A|A]; [|right; right; exact A].
  destruct (Pos.eq_dec id x) as [->|Hne]; [right; left; reflexivity|].
  left. rewrite PositiveMap.gro in A by exact Hne. exact A.
Qed.

(** what [pre_reorder_mut] removes: chain-shaped nodes that nothing left refers to *)
Theorem zchain_drop_removed : forall s id nd, WF s ->
  find_node s id = Some nd -> find_node (zchain_drop s) id = None ->
  (exists x, nchildren nd = [x; x])
  /\ (forall k kd e, find_node (zchain_drop s) k = Some kd -> In e (nchildren kd) -> eref e <> RN id)
  /\ (forall h, In h (s_handles s) -> eref (snd h) <> RN id).
Proof.
  intros s id nd H E E0. pose proof (zchain_drop_sub s H) as X.
  split; [|split].
  - unfold zchain_drop, zchain_ids in E0.
    destruct (zbase s) as [b|]; [|congruence].
    destruct (Nat.eqb (length (ztaut_find (s_nodes s) (nlevels s) (mkEdge b false) [])) (nlevels s)); [|congruence].
    unfold find_node in E0. cbn [s_nodes] in E0.
    destruct (drop_loop_find _ _ _ _ E0) as [A|A]; [unfold find_node in E; congruence|].
    destruct (ztaut_find_shape _ _ _ _ _ A) as [[]|[nd' [x [F C]]]].
    unfold find_node in E. rewrite E in F. inversion F; subst nd'. exists x. exact C.
  - intros k kd e Ek He Er. pose proof (sub_child _ _ X k kd e Ek He) as Ok. rewrite Er in Ok.
    destruct Ok as [y Ey]. congruence.
  - intros h Hh Er. rewrite <- (sub_handles _ _ X) in Hh.
    pose proof (sub_hok _ _ X h Hh) as Ok. rewrite Er in Ok. destruct Ok as [y Ey]. congruence.
Qed.

(** ** [zchain_rebuild] *)

Theorem zchain_rebuild_ok : forall s, ZbddOK s ->
  ZbddOK (zchain_rebuild s) /\ extends s (zchain_rebuild s)
  /\ exists ch, ztaut_chain s = Some (zchain_rebuild s, ch) /\ length ch = nlevels s + 1
     /\ forall l t, nth_error ch l = Some t ->
          ref_ok (zchain_rebuild s) t
          /\ exists F, fam_of (zchain_rebuild s) t = Some F /\ feq F (f_powerset l (nlevels s - l)).
Proof.
  intros s B. destruct (ztaut_chain_ok s B) as (s' & ch & E & B' & X & Hlen & Hch).
  unfold zchain_rebuild. rewrite E. split; [exact B'|]. split; [exact X|].
  exists ch. auto.
Qed.

(** ** the composition: [reorder(|m| level_down(m, i))] *)

Section SwapZ.
Variable s : snap.
Variable i : nat.
Hypothesis B : ZbddOK s.
Hypothesis Hi : S i < nlevels s.

Let s0 := zchain_drop s.
Let s2 := level_swap_zc s0 i.
Let s3 := level_swap_z s i.

Let X0 : subsnap s s0 := zchain_drop_sub s (zo_wf s B).
Let B0 : ZbddOK s0 := zchain_drop_ok s B.
Let N0 : nlevels s0 = nlevels s := sub_nlevels _ _ X0.

Lemma Hi0 : S i < nlevels s0.
Proof. rewrite N0. exact Hi. Qed.

Let B2 : ZbddOK s2 := zc_ok s0 i B0 Hi0.

Lemma s3_eq : s3 = zchain_rebuild s2.
Proof. reflexivity. Qed.

Let X23 : extends s2 s3 := proj1 (proj2 (zchain_rebuild_ok s2 B2)).

(** (a) *)
Theorem level_swap_z_ok : ZbddOK (level_swap_z s i).
Proof. apply (zchain_rebuild_ok s2 B2). Qed.

Theorem level_swap_z_nlevels : nlevels (level_swap_z s i) = nlevels s.
Proof.
  change (nlevels s3 = nlevels s). rewrite (ext_nlevels _ _ X23).
  unfold s2. rewrite (zc_nlevels s0 i B0 Hi0). exact N0.
Qed.

Theorem level_swap_z_maps :
  s_l2v (level_swap_z s i) = swap_adj i (s_l2v s)
  /\ s_v2l (level_swap_z s i) = map (swap_idx i) (s_v2l s)
  /\ (forall l, nth_error (s_l2v (level_swap_z s i)) l = nth_error (s_l2v s) (swap_idx i l))
  /\ (forall v, nth_error (s_v2l (level_swap_z s i)) v = option_map (swap_idx i) (nth_error (s_v2l s) v)).
Proof.
  change (level_swap_z s i) with s3.
  rewrite (ext_l2v _ _ X23), (ext_v2l _ _ X23).
  destruct (zc_maps s0 i B0 Hi0) as [A [C [D F]]]. fold s2 in A, C, D, F.
  rewrite (sub_l2v _ _ X0) in A, D. rewrite (sub_v2l _ _ X0) in C, F. auto.
Qed.

(** (c) *)
Theorem level_swap_z_handles : s_handles (level_swap_z s i) = s_handles s.
Proof.
  change (s_handles s3 = s_handles s). rewrite (ext_handles _ _ X23).
  unfold s2. rewrite (zc_handles s0 i B0 Hi0). apply (sub_handles _ _ X0).
Qed.

(** an edge that is stored after [pre_reorder_mut] and after the swap *)
Definition survives (e : edge) : Prop := ref_ok s0 (eref e) /\ ref_ok s2 (eref e).

Lemma survives_handle : forall h, In h (s_handles s) -> survives (snd h).
Proof.
  intros h Hh. rewrite <- (sub_handles _ _ X0) in Hh. split.
  - apply (sub_hok _ _ X0 h Hh).
  - apply (zc_handle_ok s0 i B0 Hi0 h Hh).
Qed.

Lemma survives_ok : forall e, survives e -> ref_ok s (eref e) /\ ref_ok (level_swap_z s i) (eref e).
Proof.
  intros e [A C]. split; [apply (sub_ref_ok _ _ _ X0 A) | apply (ext_ref_ok _ _ _ X23 C)].
Qed.

Theorem level_swap_z_handle_ok : forall h, In h (s_handles s) -> ref_ok (level_swap_z s i) (eref (snd h)).
Proof. intros h Hh. apply survives_ok. apply survives_handle. exact Hh. Qed.

(** (b) the Boolean function over the variables *)
Theorem level_swap_z_sem_vars : forall e a, survives e ->
  eval_vars (level_swap_z s i) e a = eval_vars s e a.
Proof.
  intros e a [A C]. change (level_swap_z s i) with s3.
  rewrite (eval_vars_ext s2 s3 e a (zo_wf _ B2) (zo_kind _ B2) X23 C).
  unfold s2. rewrite (zc_sem_vars s0 i B0 Hi0 e a A C).
  apply (eval_vars_sub s s0 e a X0 (zo_kind s B) A).
Qed.

Theorem level_swap_z_handles_vars : forall h a, In h (s_handles s) ->
  eval_vars (level_swap_z s i) (snd h) a = eval_vars s (snd h) a
  /\ exists v, eval_vars s (snd h) a = Some v.
Proof.
  intros h a Hh. split; [apply level_swap_z_sem_vars; apply survives_handle; exact Hh|].
  apply handle_total; [apply (zo_wf s B) | exact Hh].
Qed.

(** (b) the family over the variables *)
Theorem level_swap_z_fam_vars : forall e, survives e ->
  exists F F', fam_of s (eref e) = Some F /\ fam_of (level_swap_z s i) (eref e) = Some F'
    /\ forall a, fmem (set_levels (level_swap_z s i) a) F' = fmem (set_levels s a) F.
Proof.
  intros e Sv. destruct (survives_ok e Sv) as [Ok Ok3].
  pose proof level_swap_z_ok as B3.
  destruct (fam_of_total s (zo_wf s B) (zo_kind s B) (eref e) Ok) as [F EF].
  destruct (fam_of_total _ (zo_wf _ B3) (zo_kind _ B3) (eref e) Ok3) as [F' EF'].
  exists F, F'. split; [exact EF|]. split; [exact EF'|]. intros a.
  pose proof (level_swap_z_sem_vars e a Sv) as Hs.
  rewrite (eval_vars_fam s e a F (zo_wf s B) (zo_kind s B) Ok EF) in Hs.
  rewrite (eval_vars_fam _ e a F' (zo_wf _ B3) (zo_kind _ B3) Ok3 EF') in Hs.
  destruct (fmem (set_levels (level_swap_z s i) a) F'), (fmem (set_levels s a) F);
    try reflexivity; inversion Hs.
Qed.

(** the chain is complete again *)
Theorem level_swap_z_chain :
  exists ch, ztaut_chain s2 = Some (level_swap_z s i, ch) /\ length ch = nlevels s + 1
    /\ forall l t, nth_error ch l = Some t ->
         ref_ok (level_swap_z s i) t
         /\ exists F, fam_of (level_swap_z s i) t = Some F /\ feq F (f_powerset l (nlevels s - l)).
Proof.
  pose proof (zchain_rebuild_ok s2 B2) as Q. destruct Q as [_ [_ [ch [Ech [Hl Hch]]]]].
  assert (N2 : nlevels s2 = nlevels s) by (unfold s2; rewrite (zc_nlevels s0 i B0 Hi0); exact N0).
  exists ch. rewrite N2 in Hl, Hch. auto.
Qed.

End SwapZ.
