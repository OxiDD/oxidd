(** * C08, part Z — the node table after [level_swap_zcore] (ZBDD kind)

    The ZBDD instance of the loop invariant [Inv] and of the specification [Spec] of the
    table after the loop (Mgr/LevelSwapInv.v), for the fold of [zrebuild]: what a rewritten
    node ([rebuiltz]) and a new node ([goodnewz]) look like, and that [zmk2] and [zrebuild]
    keep the invariant.  Reduction rule: a node whose hi child is the Empty
    terminal is replaced by its lo child; a level that an edge skips means "variable
    absent": the hi cofactor of a skipping edge is Empty.  The rule-agnostic parts
    ([relabel], [depends], [dep_ids]: Mgr/LevelSwap.v; [ext], [low]: Mgr/LevelSwapInv.v) are shared. *)

From Coq Require Import List NArith PArith Bool Arith Lia FMapPositive.
From OxiVerif Require Import DD.Table DD.TableExtra DD.TableProofs DD.Build DD.Apply DD.FamSpec DD.ZbddOps
  Mgr.SortOrder Mgr.SortOrderProofs Mgr.LevelSwap Mgr.LevelSwapBase Mgr.LevelSwapInv Mgr.LevelSwapZ.
Import ListNotations.

Section SwapZ.
Variable s : snap.
Variable i : nat.
Variable te : N.
Hypothesis H : WF s.
Hypothesis Hk : s_kind s = KZbdd.
Hypothesis Hi : S i < nlevels s.
(* [te] is the Empty terminal *)
Hypothesis Hte : term_val s te = Some 0%N.

Definition emz : edge := mkEdge (RT te) false.

Notation isdep := (isdep s i).
Notation low := (low s i).
Notation zcof := (zbcof s emz (S i)).

(** ** the Empty terminal *)

Definition isE (e : edge) : Prop := is_empty_b s (eref e) = true.

Lemma isE_dec : forall e, {isE e} + {~ isE e}.
Proof. intros e. unfold isE. destruct (is_empty_b s (eref e)); [left; reflexivity | right; discriminate]. Qed.

Lemma isE_emz : isE emz.
Proof. unfold isE, emz, is_empty_b, is_term_with. simpl. rewrite Hte. reflexivity. Qed.

Lemma isE_ref : forall e, isE e -> eref e = RT te.
Proof.
  intros e He. unfold isE, is_empty_b, is_term_with in He. destruct (eref e) as [t|id]; [|discriminate].
  destruct (term_val s t) as [w|] eqn:E; [|discriminate]. apply N.eqb_eq in He. subst w.
  f_equal. apply (term_val_inj s t te 0%N H E Hte).
Qed.

Lemma isE_eq : forall e, isE e -> etag e = false -> e = emz.
Proof. intros [r t] He Ht. simpl in Ht. subst t. apply isE_ref in He. simpl in He. subst r. reflexivity. Qed.

Lemma low_emz : low emz.
Proof.
  split; [exists 0%N; exact Hte|]. split; [reflexivity|]. simpl. exact Hi.
Qed.

Lemma not_bcdd_z : s_kind s <> KBcdd.
Proof. rewrite Hk. discriminate. Qed.

(** ** stored ZBDD nodes *)

Lemma zbdd_children : forall id nd, find_node s id = Some nd ->
  exists c0 c1, nchildren nd = [c0; c1] /\ ~ isE c0.
Proof.
  intros id nd E. pose proof (wf_arity s H id nd E) as Ha. rewrite Hk in Ha. simpl in Ha.
  destruct (length2 _ _ Ha) as [c0 [c1 Hc]]. exists c0, c1. split; [exact Hc|].
  pose proof (wf_reduced s H id nd E) as Hr. unfold reduced in Hr. rewrite Hk, Hc in Hr.
  destruct Hr as [hi [Hh Hne]]. simpl in Hh. inversion Hh; subst hi.
  intros He. pose proof (isE_ref _ He) as Er. apply (Hne te Er Hte).
Qed.

Lemma zbdd_tag : forall id nd e, find_node s id = Some nd -> In e (nchildren nd) -> etag e = false.
Proof. intros id nd e E He. exact (wf_tags s H not_bcdd_z id nd e E He). Qed.

(** ** [zbcof] *)

Lemma zcof_skip : forall c, rlevel s (eref c) <> S i -> zcof c 0 = emz /\ zcof c 1 = c.
Proof.
  intros c Hl. unfold zbcof. destruct (eref c) as [t|id] eqn:Er; [split; reflexivity|].
  simpl in Hl. destruct (find_node s id) as [nd|]; [|split; reflexivity].
  destruct (Nat.eqb_spec (nlevel nd) (S i)); [contradiction | split; reflexivity].
Qed.

Lemma zcof_at : forall c cid cn g0 g1,
  eref c = RN cid -> find_node s cid = Some cn -> nlevel cn = S i -> nchildren cn = [g0; g1] ->
  zcof c 0 = g0 /\ zcof c 1 = g1.
Proof.
  intros c cid cn g0 g1 Er E Hl Hc. unfold zbcof. rewrite Er, E, Hl, Nat.eqb_refl, Hc. split; reflexivity.
Qed.

(** the two cases for a child [c] of a node of the upper level *)
Lemma zchild_cases : forall id nd c, find_node s id = Some nd -> nlevel nd = i -> In c (nchildren nd) ->
  (rlevel s (eref c) <> S i /\ low c /\ zcof c 0 = emz /\ zcof c 1 = c)
  \/ (exists cid cn g0 g1, c = mkEdge (RN cid) false /\ find_node s cid = Some cn /\ nlevel cn = S i
        /\ nchildren cn = [g0; g1] /\ ~ isE g0 /\ low g0 /\ low g1
        /\ zcof c 0 = g0 /\ zcof c 1 = g1).
Proof.
  intros id nd c E Hl Hc.
  destruct (wf_child s H id nd c E Hc) as [Hok Hlt]. pose proof (zbdd_tag id nd c E Hc) as Ht.
  destruct (Nat.eq_dec (rlevel s (eref c)) (S i)) as [Heq|Hne].
  - right. destruct (eref c) as [t|cid] eqn:Er.
    { simpl in Heq. lia. }
    simpl in Heq. destruct (find_node s cid) as [cn|] eqn:Ec; [|lia].
    destruct (zbdd_children cid cn Ec) as [g0 [g1 [Hg Hne]]].
    exists cid, cn, g0, g1.
    assert (Hlow : forall g, In g (nchildren cn) -> low g).
    { intros g Hg'. destruct (wf_child s H cid cn g Ec Hg') as [A B].
      split; [exact A|]. split; [exact (zbdd_tag cid cn g Ec Hg') | lia]. }
    destruct (zcof_at c cid cn g0 g1 Er Ec Heq Hg) as [B0 B1].
    assert (Hce : c = mkEdge (RN cid) false).
    { destruct c as [r t]. simpl in *. subst. reflexivity. }
    assert (L0 : low g0) by (apply Hlow; rewrite Hg; simpl; auto).
    assert (L1 : low g1) by (apply Hlow; rewrite Hg; simpl; auto).
    split; [exact Hce|]. split; [exact Ec|]. split; [exact Heq|]. split; [exact Hg|].
    split; [exact Hne|]. split; [exact L0|]. split; [exact L1|]. split; [exact B0 | exact B1].
  - left. split; [exact Hne|]. split.
    + split; [exact Hok|]. split; [exact Ht | lia].
    + apply zcof_skip. exact Hne.
Qed.

Lemma zcof_low : forall id nd c b, find_node s id = Some nd -> nlevel nd = i -> In c (nchildren nd) ->
  b < 2 -> low (zcof c b).
Proof.
  intros id nd c b E Hl Hc Hb.
  destruct (zchild_cases id nd c E Hl Hc) as [[_ [Hlow [B0 B1]]]|[cid [cn [g0 [g1 [_ [_ [_ [_ [_ [L0 [L1 [B0 B1]]]]]]]]]]]]].
  - destruct b as [|[|b]]; [rewrite B0; exact low_emz | rewrite B1; exact Hlow | lia].
  - destruct b as [|[|b]]; [rewrite B0; exact L0 | rewrite B1; exact L1 | lia].
Qed.

(** the pair of cofactors determines the child *)
Lemma zcof_inj : forall id1 nd1 c id2 nd2 d,
  find_node s id1 = Some nd1 -> nlevel nd1 = i -> In c (nchildren nd1) ->
  find_node s id2 = Some nd2 -> nlevel nd2 = i -> In d (nchildren nd2) ->
  zcof c 0 = zcof d 0 -> zcof c 1 = zcof d 1 -> c = d.
Proof.
  intros id1 nd1 c id2 nd2 d E1 L1 Hc E2 L2 Hd B0 B1.
  destruct (zchild_cases id1 nd1 c E1 L1 Hc) as [[_ [_ [Sc0 Sc1]]]|[cid [cn [g0 [g1 [Ec [Fc [Lc [Cc [Nc [_ [_ [C0 C1]]]]]]]]]]]]];
  destruct (zchild_cases id2 nd2 d E2 L2 Hd) as [[_ [_ [Sd0 Sd1]]]|[did [dn [h0 [h1 [Ed [Fd [Ld [Cd [Nd [_ [_ [D0 D1]]]]]]]]]]]]].
  - rewrite Sc1, Sd1 in B1. exact B1.
  - exfalso. rewrite Sc0, D0 in B0. apply Nd. rewrite <- B0. exact isE_emz.
  - exfalso. rewrite C0, Sd0 in B0. apply Nc. rewrite B0. exact isE_emz.
  - rewrite C0, D0 in B0. rewrite C1, D1 in B1. subst g0 g1.
    assert (cid = did).
    { apply (wf_unique s H cid did cn dn Fc Fd); congruence. }
    subst. reflexivity.
Qed.

(** the hi cofactors of a node that references the lower level are not both Empty: the
    rewritten node's hi child is not Empty *)
Lemma zdep_hi0 : forall id nd c0 c1, find_node s id = Some nd -> isdep nd -> nchildren nd = [c0; c1] ->
  ~ (isE (zcof c0 0) /\ isE (zcof c1 0)).
Proof.
  intros id nd c0 c1 E [Hl Hd] Hc [A B].
  apply depends_spec in Hd. destruct Hd as [e [He Hle]]. rewrite Hc in He.
  assert (Hin0 : In c0 (nchildren nd)) by (rewrite Hc; simpl; auto).
  assert (Hin1 : In c1 (nchildren nd)) by (rewrite Hc; simpl; auto).
  destruct He as [<-|[<-|[]]].
  - destruct (zchild_cases id nd c0 E Hl Hin0) as [[Hne _]|[cid [cn [g0 [g1 [_ [_ [_ [_ [Hg [_ [_ [B0 B1]]]]]]]]]]]]].
    + contradiction.
    + apply Hg. rewrite <- B0. exact A.
  - destruct (zchild_cases id nd c1 E Hl Hin1) as [[Hne _]|[cid [cn [g0 [g1 [_ [_ [_ [_ [Hg [_ [_ [B0 B1]]]]]]]]]]]]].
    + contradiction.
    + apply Hg. rewrite <- B0. exact B.
Qed.

(** the two cofactors of the hi child are not both Empty: one of the rewritten children
    is a node of the new lower level *)
Lemma zdep_c0 : forall id nd c0 c1, find_node s id = Some nd -> nlevel nd = i -> nchildren nd = [c0; c1] ->
  ~ (isE (zcof c0 0) /\ isE (zcof c0 1)).
Proof.
  intros id nd c0 c1 E Hl Hc [A B].
  assert (Hin0 : In c0 (nchildren nd)) by (rewrite Hc; simpl; auto).
  destruct (zbdd_children id nd E) as [a [b [Hab Hne]]]. rewrite Hc in Hab. inversion Hab; subst a b.
  destruct (zchild_cases id nd c0 E Hl Hin0) as [[_ [_ [_ B1]]]|[cid [cn [g0 [g1 [_ [_ [_ [_ [Hg [_ [_ [B0 _]]]]]]]]]]]]].
  - apply Hne. rewrite <- B1. exact B.
  - apply Hg. rewrite <- B0. exact A.
Qed.

(** ** the loop invariant *)

(** [e] is what [reduce] + lookup/insert on the new lower level returns for the children
    [x] (hi), [y] (lo) *)
Definition repz (m : PositiveMap.t node) (x y e : edge) : Prop :=
  (isE x /\ e = y)
  \/ (~ isE x /\ exists id nd, e = mkEdge (RN id) false /\ PositiveMap.find id m = Some nd
                              /\ nlevel nd = S i /\ nchildren nd = [x; y]).

(** a node created by the swap *)
Definition goodnewz (nd : node) : Prop :=
  nlevel nd = S i /\ nstored nd = S i
  /\ exists x y, nchildren nd = [x; y] /\ ~ isE x /\ low x /\ low y.

Notation ext := (ext i).

Lemma repz_ext : forall m m' x y e, ext m m' -> repz m x y e -> repz m' x y e.
Proof.
  intros m m' x y e Hx [A|[A [id [nd [B [C [D F]]]]]]]; [left; exact A | right].
  split; [exact A|]. exists id, nd. repeat split; auto.
Qed.

(** the rewritten form of a node of the upper level that references the lower level *)
Definition rebuiltz (m : PositiveMap.t node) (id : positive) (nd : node) : Prop :=
  exists c0 c1 e0 e1, nchildren nd = [c0; c1]
    /\ PositiveMap.find id m = Some (mkNode i [e0; e1] i (nrc nd))
    /\ repz m (zcof c0 0) (zcof c1 0) e0
    /\ repz m (zcof c0 1) (zcof c1 1) e1.

Lemma rebuiltz_find : forall m id nd, rebuiltz m id nd ->
  exists ch, PositiveMap.find id m = Some (mkNode i ch i (nrc nd)).
Proof. intros m id nd [c0 [c1 [e0 [e1 [_ [Hf _]]]]]]. eauto. Qed.

Lemma goodnewz_level : forall nd, goodnewz nd -> nlevel nd = S i /\ nstored nd = S i.
Proof. intros nd [A [B _]]. auto. Qed.

Lemma rebuiltz_add : forall m id nd k x,
  rebuiltz m id nd -> k <> id -> ext m (PositiveMap.add k x m) -> rebuiltz (PositiveMap.add k x m) id nd.
Proof.
  intros m id nd k x [c0 [c1 [e0 [e1 [Hc [Hf [R0 R1]]]]]]] Hne Hx. exists c0, c1, e0, e1.
  split; [exact Hc|]. split; [|split; eapply repz_ext; eauto].
  rewrite find_add. destruct (Pos.eqb_spec id k); [congruence | exact Hf].
Qed.

Notation InvZ := (Inv s i goodnewz rebuiltz).

(** [reduce] + [get_or_insert] on the new lower level *)
Lemma zmk2_inv : forall P st x y e st',
  InvZ P st -> low x -> low y -> zmk2 s st (S i) x y = (e, st') ->
  InvZ P st' /\ repz (fst st') x y e /\ ext (fst st) (fst st').
Proof.
  intros P [m nxt] x y e st' I Lx Ly. unfold zmk2. simpl fst. simpl snd.
  destruct (is_empty_b s (eref x)) eqn:Ex.
  { intros E. inversion E; subst.
    split; [exact I|]. split; [left; split; [exact Ex | reflexivity] | apply ext_refl]. }
  assert (Hne : ~ isE x) by (unfold isE; rewrite Ex; discriminate).
  destruct (find_at m (S i) [x; y]) as [id|] eqn:F.
  { intros E. inversion E; subst. destruct (find_at_some _ _ _ _ F) as [nd [A [B C]]].
    split; [exact I|]. split; [|apply ext_refl].
    right. split; [exact Hne|]. exists id, nd. auto. }
  intros E. inversion E; subst e st'. clear E. simpl fst. simpl snd.
  destruct (inv_insert s i goodnewz rebuiltz rebuiltz_add P m nxt [x; y] I F) as [I' Hext].
  { split; [reflexivity|]. split; [reflexivity|]. exists x, y. auto. }
  split; [exact I'|]. split; [|exact Hext].
  right. split; [exact Hne|]. exists nxt, (mkNode (S i) [x; y] (S i) 0%N).
  split; [reflexivity|]. split; [|split; reflexivity].
  rewrite find_add, Pos.eqb_refl. reflexivity.
Qed.

(** one iteration of the loop *)
Lemma zrebuild_inv : forall P st id nd,
  InvZ P st -> find_node s id = Some nd -> isdep nd -> ~ In id P ->
  InvZ (id :: P) (zrebuild s emz i st id).
Proof.
  intros P st id nd I E D Hn. unfold zrebuild. rewrite E.
  destruct (zbdd_children id nd E) as [c0 [c1 [Hc Hne]]]. rewrite Hc.
  assert (Hin0 : In c0 (nchildren nd)) by (rewrite Hc; simpl; auto).
  assert (Hin1 : In c1 (nchildren nd)) by (rewrite Hc; simpl; auto).
  pose proof (proj1 D) as Dl.
  destruct (zmk2 s st (S i) (zcof c0 0) (zcof c1 0)) as [e0 st1] eqn:M0.
  destruct (zmk2 s st1 (S i) (zcof c0 1) (zcof c1 1)) as [e1 st2] eqn:M1.
  destruct (zmk2_inv P st _ _ e0 st1 I
              (zcof_low id nd c0 0 E Dl Hin0 ltac:(lia)) (zcof_low id nd c1 0 E Dl Hin1 ltac:(lia)) M0)
    as [I1 [R0 X1]].
  destruct (zmk2_inv P st1 _ _ e1 st2 I1
              (zcof_low id nd c0 1 E Dl Hin0 ltac:(lia)) (zcof_low id nd c1 1 E Dl Hin1 ltac:(lia)) M1)
    as [I2 [R1 X2]].
  pose proof (repz_ext _ _ _ _ _ X2 R0) as R0'.
  destruct (inv_rewrite s i goodnewz rebuiltz rebuiltz_add P st2 id nd (mkNode i [e0; e1] i (nrc nd))
              I2 E D Hn eq_refl) as [Hext Hfin].
  apply Hfin. exists c0, c1, e0, e1. split; [exact Hc|]. split.
  - rewrite find_add, Pos.eqb_refl. reflexivity.
  - split; eapply repz_ext; eauto.
Qed.

(** ** the table after the loop *)

Theorem swap_nodes_z_spec : Spec s i goodnewz rebuiltz (swap_nodes_z s emz i).
Proof. exact (loop_spec s i H goodnewz rebuiltz (zrebuild s emz i) zrebuild_inv). Qed.

End SwapZ.
