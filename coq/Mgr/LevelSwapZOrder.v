(** * C08, part Z — [set_var_order_model_z]: a whole reordering of a ZBDD manager

    [set_var_order] on a ZBDD manager: nothing when the target order is the current one,
    otherwise ONE [reorder] bracket (chain dropped, chain rebuilt) around the adjacent swaps
    of the bubble sort.
    - [zswaps_fold]: any sequence of in-range swaps inside the bracket keeps [ZbddOK], the
      handle list and every handle's function over the variables, and permutes
      [level_to_var] as [replay] does;
    - [set_var_order_model_z_correct] / [_respects] / [_canonical] / [_fam] / [_chain]:
      as for BDDs (Mgr/LevelSwapOrder.v), plus: every handle denotes the same family over
      the variables and the tautology chain is complete again;
    - examples: the hypotheses are satisfiable; on the example the loop takes the
      [cofactor_skipped] branch, the zero-suppression branch of [reduce], creates and
      removes nodes, and the chain is dropped and rebuilt. *)

From Coq Require Import List NArith PArith Bool Arith Lia FMapPositive Permutation.
From OxiVerif Require Import DD.Table DD.TableExtra DD.TableProofs DD.Canon DD.CanonZbdd DD.Build DD.BuildProofs
  DD.Apply DD.ApplyProofs DD.FamSpec DD.FamSpecProofs DD.ZbddOps DD.ZbddOpsProofs DD.ZbddVars DD.ZbddVarsProofs
  Mgr.SortOrder Mgr.SortOrderProofs
  Mgr.LevelSwap Mgr.LevelSwapBase Mgr.LevelSwapSem Mgr.LevelSwapProofs Mgr.LevelSwapOrder
  Mgr.LevelSwapZ Mgr.LevelSwapZSub Mgr.LevelSwapZProofs Mgr.LevelSwapZChain.
Import ListNotations.

(** ** a sequence of swaps inside the bracket *)

Theorem zswaps_fold : forall sw s,
  ZbddOK s -> Forall (fun k => S k < nlevels s) sw ->
  let s' := fold_left level_swap_zc sw s in
  ZbddOK s' /\ nlevels s' = nlevels s /\ s_handles s' = s_handles s
  /\ s_l2v s' = replay sw (s_l2v s) /\ s_v2l s' = fold_left (fun v k => map (swap_idx k) v) sw (s_v2l s)
  /\ (forall h a, In h (s_handles s) ->
        eval_vars s' (snd h) a = eval_vars s (snd h) a /\ exists v, eval_vars s (snd h) a = Some v).
Proof.
  intros sw s B Hsw.
  destruct (swaps_fold_gen level_swap_zc ZbddOK _ _ (fun _ => True) eval_vars)
    with (sw := sw) (s := s) as [A [C [D [F [F2 G]]]]]; auto.
  - intros t k Bt Hk0. destruct (zc_maps t k Bt Hk0) as [M1 [M2 _]].
    split; [apply (zc_ok t k Bt Hk0)|]. split; [apply (zc_handles t k Bt Hk0)|].
    split; [exact M1|]. split; [exact M2|].
    intros h a _ Hh. apply (zc_handles_vars t k Bt Hk0 h a Hh).
  - split; [exact A|]. split; [exact C|]. split; [exact D|]. split; [exact F|]. split; [exact F2|].
    intros h a Hh. split; [apply G; auto | apply handle_total; [apply (zo_wf s B) | exact Hh]].
Qed.

(** ** the bracket: drop, swaps, rebuild *)

Definition zbracket (s : snap) (sw : list nat) : snap :=
  zchain_rebuild (fold_left level_swap_zc sw (zchain_drop s)).

Theorem zbracket_ok : forall sw s,
  ZbddOK s -> Forall (fun k => S k < nlevels s) sw ->
  let s' := zbracket s sw in
  ZbddOK s' /\ nlevels s' = nlevels s /\ s_handles s' = s_handles s
  /\ s_l2v s' = replay sw (s_l2v s)
  /\ (forall h a, In h (s_handles s) ->
        eval_vars s' (snd h) a = eval_vars s (snd h) a /\ exists v, eval_vars s (snd h) a = Some v)
  /\ (exists ch, length ch = nlevels s + 1
      /\ forall l t, nth_error ch l = Some t ->
           ref_ok s' t /\ exists F, fam_of s' t = Some F /\ feq F (f_powerset l (nlevels s - l))).
Proof.
  intros sw s B Hsw. unfold zbracket.
  pose proof (zchain_drop_sub s (zo_wf s B)) as X0.
  pose proof (zchain_drop_ok s B) as B0.
  set (s0 := zchain_drop s) in *.
  assert (Hsw0 : Forall (fun k => S k < nlevels s0) sw) by (rewrite (sub_nlevels _ _ X0); exact Hsw).
  destruct (zswaps_fold sw s0 B0 Hsw0) as [A [C [D [F [_ G]]]]].
  set (sf := fold_left level_swap_zc sw s0) in *.
  destruct (zchain_rebuild_ok sf A) as [B' [X [ch [_ [Hl Hch]]]]].
  set (s' := zchain_rebuild sf) in *.
  assert (Nf : nlevels sf = nlevels s) by (rewrite C; apply (sub_nlevels _ _ X0)).
  simpl. split; [exact B'|]. split; [rewrite (ext_nlevels _ _ X); exact Nf|].
  split; [rewrite (ext_handles _ _ X), D; apply (sub_handles _ _ X0)|].
  split; [rewrite (ext_l2v _ _ X), F, (sub_l2v _ _ X0); reflexivity|].
  split.
  - intros h a Hh.
    assert (Hh0 : In h (s_handles s0)) by (rewrite (sub_handles _ _ X0); exact Hh).
    destruct (G h a Hh0) as [G1 _].
    assert (Okf : ref_ok sf (eref (snd h))).
    { apply (wf_handles sf (zo_wf _ A)). rewrite D. exact Hh0. }
    split.
    + rewrite (eval_vars_ext sf s' (snd h) a (zo_wf _ A) (zo_kind _ A) X Okf), G1.
      apply (eval_vars_sub s s0 (snd h) a X0 (zo_kind s B)). apply (sub_hok _ _ X0 h Hh0).
    + apply handle_total; [apply (zo_wf s B) | exact Hh].
  - exists ch. rewrite Nf in Hl, Hch. split; [exact Hl | exact Hch].
Qed.

(** ** [set_var_order_model_z] *)

Section OrderZ.
Variable s : snap.
Variable order : list nat.
Hypothesis B : ZbddOK s.
(* the requests on which [set_var_order] does not panic: variables in range, none twice *)
Hypothesis Hnd : NoDup order.
Hypothesis Hr : Forall (fun v => v < nlevels s) order.

Let H : WF s := zo_wf s B.
Let n := nlevels s.
Let levels := map (fun v => nth v (s_v2l s) 0) order.
Let target := sort_order n levels.
Let s' := set_var_order_model_z s order.

(** the facts shared by both branches of [set_var_order_model_z] *)
Lemma zorder_core :
  ZbddOK s' /\ nlevels s' = n /\ s_handles s' = s_handles s
  /\ s_l2v s' = replay (snd (bubble_sort target)) (s_l2v s)
  /\ (forall h a, In h (s_handles s) ->
        eval_vars s' (snd h) a = eval_vars s (snd h) a /\ exists v, eval_vars s (snd h) a = Some v).
Proof.
  destruct (target_swaps s order H Hnd Hr) as [Hsw _].
  unfold s', set_var_order_model_z. fold n. fold levels. fold target. fold n levels target in Hsw.
  destruct (snd (bubble_sort target)) as [|k sw].
  - split; [exact B|]. split; [reflexivity|]. split; [reflexivity|]. split; [reflexivity|].
    intros h a Hh. split; [reflexivity | apply handle_total; assumption].
  - destruct (zbracket_ok (k :: sw) s B Hsw) as [A [C [D [F [G _]]]]].
    unfold zbracket in *. auto.
Qed.

Theorem set_var_order_model_z_correct :
  ZbddOK s' /\ s_kind s' = s_kind s /\ nlevels s' = n /\ s_handles s' = s_handles s
  /\ (forall h a, In h (s_handles s) ->
        eval_vars s' (snd h) a = eval_vars s (snd h) a /\ exists v, eval_vars s (snd h) a = Some v)
  /\ (forall v, v < n -> nth v (s_v2l s') 0 = nth (nth v (s_v2l s) 0) target 0)
  /\ length (snd (bubble_sort target)) = inv target.
Proof.
  destruct zorder_core as [A [C [D [F G]]]].
  split; [exact A|]. split; [rewrite (zo_kind _ A), (zo_kind s B); reflexivity|].
  split; [exact C|]. split; [exact D|]. split; [exact G|].
  split; [|apply (target_swaps s order H Hnd Hr)].
  exact (target_positions s order H Hnd Hr _ (zo_wf _ A) C F).
Qed.

(** the variables named in the request end up in the requested relative order *)
Theorem set_var_order_model_z_respects : forall a b, a < b < length order ->
  nth (nth a order 0) (s_v2l s') 0 < nth (nth b order 0) (s_v2l s') 0.
Proof.
  apply (target_respects s order H Hnd Hr). apply set_var_order_model_z_correct.
Qed.

(** the reordered diagram is canonical again (the theorem of C01 for ZBDDs applies to the result) *)
Theorem set_var_order_model_z_canonical : forall h1 h2,
  In h1 (s_handles s) -> In h2 (s_handles s) ->
  (snd h1 = snd h2 <->
   forall c, choice_ok s' c -> sem_edge s' (snd h1) c = sem_edge s' (snd h2) c).
Proof.
  intros h1 h2 H1 H2.
  destruct set_var_order_model_z_correct as [A [_ [_ [D _]]]].
  apply (canon_zbdd_handles s' (zo_wf _ A) (zo_kind _ A) (zbddok_terms_kind _ A)).
  - rewrite D. exact H1.
  - rewrite D. exact H2.
Qed.

(** every handle denotes the same family over the variables *)
Theorem set_var_order_model_z_fam : forall h, In h (s_handles s) ->
  exists F F', fam_of s (eref (snd h)) = Some F /\ fam_of s' (eref (snd h)) = Some F'
    /\ forall a, fmem (set_levels s' a) F' = fmem (set_levels s a) F.
Proof.
  intros h Hh. destruct set_var_order_model_z_correct as [A [_ [_ [D [G _]]]]].
  destruct (wf_handles s H h Hh) as [Ok _].
  assert (Ok' : ref_ok s' (eref (snd h))) by (apply (wf_handles s' (zo_wf _ A)); rewrite D; exact Hh).
  destruct (fam_of_total s H (zo_kind s B) _ Ok) as [F EF].
  destruct (fam_of_total s' (zo_wf _ A) (zo_kind _ A) _ Ok') as [F' EF'].
  exists F, F'. split; [exact EF|]. split; [exact EF'|]. intros a.
  destruct (G h a Hh) as [Hs _].
  rewrite (eval_vars_fam s _ a F H (zo_kind s B) Ok EF) in Hs.
  rewrite (eval_vars_fam s' _ a F' (zo_wf _ A) (zo_kind _ A) Ok' EF') in Hs.
  destruct (fmem (set_levels s' a) F'), (fmem (set_levels s a) F); try reflexivity; inversion Hs.
Qed.

End OrderZ.

(** the tautology chain is complete after a reordering that swaps at all *)
Theorem set_var_order_model_z_chain : forall s order,
  ZbddOK s -> NoDup order -> Forall (fun v => v < nlevels s) order ->
  snd (bubble_sort (sort_order (nlevels s) (map (fun v => nth v (s_v2l s) 0) order))) <> [] ->
  exists ch, length ch = nlevels s + 1
    /\ forall l t, nth_error ch l = Some t ->
         ref_ok (set_var_order_model_z s order) t
         /\ exists F, fam_of (set_var_order_model_z s order) t = Some F /\ feq F (f_powerset l (nlevels s - l)).
Proof.
  intros s order B Hnd Hr Hne.
  pose proof (valid_order_levels s order (zo_wf s B) Hnd Hr) as Hv.
  unfold set_var_order_model_z in *.
  set (target := sort_order (nlevels s) (map (fun v => nth v (s_v2l s) 0) order)) in *.
  pose proof (bubble_sort_correct target) as Hb.
  destruct (bubble_sort target) as [t' sw] eqn:Eb. simpl snd in *.
  destruct Hb as [_ [_ [Hvalid _]]].
  assert (Hlen : length target = nlevels s) by (apply sort_order_length; exact Hv).
  assert (Hsw : Forall (fun k => S k < nlevels s) sw).
  { pose proof (valid_swaps_range target sw Hvalid) as R. rewrite Hlen in R. exact R. }
  destruct sw as [|k sw]; [contradiction|].
  destruct (zbracket_ok (k :: sw) s B Hsw) as [_ [_ [_ [_ [_ G]]]]]. exact G.
Qed.

(** ** the hypotheses are satisfiable; the loop does something *)

(** three variables; terminals 0 = Empty, 1 = Base; the tautology chain is 1 (level 2), 2 (level 1),
    3 (level 0); handles: [h0] = node 5 = the family {{x0}, {x1}} (node 4 = {{x1}}),
    [h1] = node 6 = {{x0, x2}, {}} (its hi child, node 7 = {{x2}}, skips level 1) *)
Definition zex_e (r : ref) : edge := mkEdge r false.

Definition zex_swap : snap :=
  mkSnap KZbdd
    (PositiveMap.add 7%positive (mkNode 2 [zex_e (RT 1); zex_e (RT 0)] 2 1)
    (PositiveMap.add 6%positive (mkNode 0 [zex_e (RN 7); zex_e (RT 1)] 0 1)
    (PositiveMap.add 5%positive (mkNode 0 [zex_e (RT 1); zex_e (RN 4)] 0 1)
    (PositiveMap.add 4%positive (mkNode 1 [zex_e (RT 1); zex_e (RT 0)] 1 1)
    (PositiveMap.add 3%positive (mkNode 0 [zex_e (RN 2); zex_e (RN 2)] 0 1)
    (PositiveMap.add 2%positive (mkNode 1 [zex_e (RN 1); zex_e (RN 1)] 1 3)
    (PositiveMap.add 1%positive (mkNode 2 [zex_e (RT 1); zex_e (RT 1)] 2 3)
       (PositiveMap.empty node))))))))
    [(0%N, 0%N); (1%N, 1%N)]
    [0; 1; 2] [0; 1; 2]
    [(0%N, zex_e (RN 5)); (1%N, zex_e (RN 6))].

Example zex_swap_ok : ZbddOK zex_swap.
Proof. apply zbdd_ok_b_spec. vm_compute. reflexivity. Qed.

(** [reorder(level_down(0))]: the whole chain is unreferenced and dropped (ids 3, 2, 1); node 5
    references level 1 and is rewritten: its hi child Base skips level 1 (hi cofactor Empty:
    [cofactor_skipped]), so its new hi child is [reduce(Empty, Base) = Base] (zero-suppression
    branch) and its new lo child the new node 8 = (level 1, [Base, Empty]); the old child 4 loses
    its last reference and is removed; node 6 does not reference level 1 and moves down; the
    rebuilt chain gets fresh ids *)
Example zex_swap_all :
  ZbddOK zex_swap /\ 1 < nlevels zex_swap
  /\ zchain_ids zex_swap = Some [3; 2; 1]%positive
  /\ PositiveMap.cardinal (s_nodes (zchain_drop zex_swap)) = 4
  /\ dep_ids (zchain_drop zex_swap) 0 = [5]%positive
  /\ (let z := level_swap_zc (zchain_drop zex_swap) 0 in
      find_node z 5 = Some (mkNode 0 [zex_e (RT 1); zex_e (RN 8)] 0 1)
      /\ find_node z 8 = Some (mkNode 1 [zex_e (RT 1); zex_e (RT 0)] 1 0)
      /\ find_node z 4 = None
      /\ find_node z 6 = Some (mkNode 1 [zex_e (RN 7); zex_e (RT 1)] 1 1)
      /\ PositiveMap.cardinal (s_nodes z) = 4)
  /\ (let z := level_swap_z zex_swap 0 in
      s_v2l z = [1; 0; 2] /\ s_l2v z = [1; 0; 2]
      /\ PositiveMap.cardinal (s_nodes z) = 7
      /\ option_map (@length positive) (zchain_ids z) = Some 3)
  /\ s_v2l (set_var_order_model_z zex_swap [2; 1; 0]) = [2; 1; 0]
  /\ set_var_order_model_z zex_swap [0; 1; 2] = zex_swap
  /\ NoDup [2; 1; 0] /\ Forall (fun v => v < nlevels zex_swap) [2; 1; 0].
Proof.
  split; [exact zex_swap_ok|]. split; [vm_compute; lia|].
  split; [vm_compute; reflexivity|]. split; [vm_compute; reflexivity|]. split; [vm_compute; reflexivity|].
  split; [vm_compute; repeat split; reflexivity|].
  split; [vm_compute; repeat split; reflexivity|].
  split; [vm_compute; reflexivity|]. split; [vm_compute; reflexivity|].
  split.
  - repeat constructor; simpl; intuition lia.
  - repeat constructor; vm_compute; lia.
Qed.
