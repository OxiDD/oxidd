(** * C08, part Z — theorems about [level_swap_zc] (Mgr/LevelSwapZ.v): one adjacent level swap of
    a ZBDD table inside a [reorder] bracket (the tautology chain is dealt with in
    Mgr/LevelSwapZChain.v)

    For a ZBDD table [s] with [ZbddOK s] (well-formed, zero-suppressed, terminals Empty and
    Base) and two adjacent levels [i], [i+1]:
    - [zc_ok]: the result satisfies [ZbddOK] again; [zc_maps]: the maps with the entries of
      the two levels exchanged;
    - [zc_handles], [zc_handle_ok]: handle list unchanged, every handle's node keeps its id;
    - [zc_untouched] / [zc_untouched_rev] / [zc_removed_only]: the other levels are not
      touched, only unreferenced nodes of the old lower level disappear;
    - [zc_sem_levels] / [zc_sem_vars]: every edge stored before and after denotes the same
      Boolean function (over LEVELS with the two entries exchanged; over VARIABLES
      unchanged);
    - [zc_fam_vars]: ... the same FAMILY OVER VARIABLES: a set of variables is a member before
      iff it is a member afterwards ([set_levels]: the set written as the list of its levels
      in the table's own order, which is how [famz] lists the members). *)

From Coq Require Import List NArith PArith Bool Arith Lia FMapPositive.
From OxiVerif Require Import DD.Table DD.TableExtra DD.TableProofs DD.Canon DD.CanonZbdd DD.Build DD.BuildProofs
  DD.Apply DD.ApplyProofs DD.FamSpec DD.FamSpecProofs DD.ZbddOps DD.ZbddOpsProofs
  Mgr.SortOrder Mgr.SortOrderProofs
  Mgr.LevelSwap Mgr.LevelSwapBase Mgr.LevelSwapInv Mgr.LevelSwapWF Mgr.LevelSwapSem Mgr.LevelSwapProofs
  Mgr.LevelSwapZ Mgr.LevelSwapZInv Mgr.LevelSwapZWF Mgr.LevelSwapZSem Mgr.LevelSwapZSub.
Import ListNotations.

(** ** sets of variables as level lists *)

(** the levels (in increasing order) whose variable belongs to the set [a] *)
Definition set_levels (s : snap) (a : nat -> bool) : FamSpec.lset :=
  true_levels (asg_choice s a) 0 (nlevels s).

Lemma set_levels_spec : forall s a l,
  In l (set_levels s a) <-> l < nlevels s /\ a (nth l (s_l2v s) 0) = true.
Proof.
  intros s a l. unfold set_levels. split.
  - intros Hin. apply true_levels_range in Hin. destruct Hin as [A B]. split; [lia|].
    unfold asg_choice in B. destruct (a (nth l (s_l2v s) 0)); [reflexivity | discriminate].
  - intros [A B]. apply true_levels_in; [lia|]. unfold asg_choice. rewrite B. reflexivity.
Qed.

(** the Boolean view of an edge at a variable assignment = membership of the set of true variables *)
Lemma eval_vars_fam : forall s e a F, WF s -> s_kind s = KZbdd -> ref_ok s (eref e) ->
  fam_of s (eref e) = Some F ->
  eval_vars s e a = Some (if fmem (set_levels s a) F then 1%N else 0%N).
Proof.
  intros s e a F H Hk Ok EF. unfold eval_vars.
  rewrite (bool_view_sem_edge s H Hk e _ F Ok (asg_choice_ok s a) EF). reflexivity.
Qed.

Lemma sem_edge_z : forall s e c, s_kind s = KZbdd ->
  sem_edge s e c = option_map (fun b : bool => if b then 1%N else 0%N) (Zv s 0 (eref e) c).
Proof. intros s e c Hk. unfold sem_edge, Zv. rewrite Hk. reflexivity. Qed.

Section ZC.
Variable s : snap.
Variable i : nat.
Hypothesis B : ZbddOK s.
Hypothesis Hi : S i < nlevels s.

Let H : WF s := zo_wf s B.
Let Hk : s_kind s = KZbdd := zo_kind s B.

(** the removed nodes *)
Definition zremoved (em : edge) : list positive :=
  filter (fun id => negb (referenced (swap_nodes_z s em i) (s_handles s) id)) (dropped_children s i).

Lemma zc_unfold : forall te, zempty s = Some (RT te) ->
  level_swap_zc s i = without (level_swap_zcore s (emz te) i) (zremoved (emz te)).
Proof. intros te E. unfold level_swap_zc. rewrite E. reflexivity. Qed.

(** everything below is proved for "some Empty terminal [te] that [zempty] returns" *)
Section WithTe.
Variable te : N.
Hypothesis Ez : zempty s = Some (RT te).
Hypothesis Hte : term_val s te = Some 0%N.

Notation em := (emz te).
Let s1 := level_swap_zcore s em i.
Let s2 := level_swap_zc s i.
Let H1 : WF s1 := zcore_wf s i te H Hk Hi Hte.

Lemma zs2 : s2 = without s1 (zremoved em).
Proof. apply zc_unfold. exact Ez. Qed.

Lemma zsub12 : subsnap s1 s2.
Proof. rewrite zs2. exact (swept_sub s i _ H1). Qed.

Lemma zc_wf' : WF s2.
Proof. apply (subsnap_wf s1 s2 H1 zsub12). Qed.

Lemma zc_kind' : s_kind s2 = KZbdd.
Proof. rewrite (sub_kind _ _ zsub12). exact Hk. Qed.

Lemma zc_terms' : s_terms s2 = s_terms s.
Proof. rewrite (sub_terms _ _ zsub12). reflexivity. Qed.

Lemma zc_nlevels' : nlevels s2 = nlevels s.
Proof. rewrite (sub_nlevels _ _ zsub12). apply (znlevels1 s i te). Qed.

Lemma zc_maps' : s_l2v s2 = swap_adj i (s_l2v s) /\ s_v2l s2 = map (swap_idx i) (s_v2l s).
Proof. rewrite (sub_l2v _ _ zsub12), (sub_v2l _ _ zsub12). split; reflexivity. Qed.

Lemma zc_handles' : s_handles s2 = s_handles s.
Proof. rewrite (sub_handles _ _ zsub12). reflexivity. Qed.

Lemma zc_handle_ok' : forall h, In h (s_handles s) -> ref_ok s2 (eref (snd h)).
Proof. intros h Hh. apply (sub_hok _ _ zsub12). rewrite zc_handles'. exact Hh. Qed.

Lemma zc_removed_only' : forall id nd, find_node s id = Some nd -> find_node s2 id = None ->
  nlevel nd = S i /\ In id (dropped_children s i)
  /\ referenced (swap_nodes_z s em i) (s_handles s) id = false.
Proof. rewrite zs2. exact (swept_removed_only s i _ _ (rebuiltz_find s i te) _ (swap_nodes_z_spec s i te H Hk Hi Hte)). Qed.

Lemma zc_untouched' : forall id nd, find_node s id = Some nd ->
  nlevel nd <> i -> nlevel nd <> S i -> find_node s2 id = Some nd.
Proof. rewrite zs2. exact (swept_untouched s i _ _ (rebuiltz_find s i te) _ (swap_nodes_z_spec s i te H Hk Hi Hte)). Qed.

Lemma zc_untouched_rev' : forall id nd, find_node s2 id = Some nd ->
  nlevel nd <> i -> nlevel nd <> S i -> find_node s id = Some nd.
Proof. rewrite zs2. exact (swept_untouched_rev s i _ _ (rebuiltz_find s i te) (goodnewz_level s i) _ (swap_nodes_z_spec s i te H Hk Hi Hte) H1). Qed.

(** the view from any level outside the swapped pair *)
Lemma zc_view' : forall r lvl c, ref_ok s r -> ref_ok s2 r -> choice_ok s c ->
  lvl <= rlevel s r -> (lvl <= i \/ S (S i) <= lvl) ->
  Zv s2 lvl r (swap_choice i c) = Zv s lvl r c.
Proof.
  intros r lvl c Ok Ok2 Hc Hl Hside. unfold Zv at 1.
  rewrite (subsnap_semz s1 s2 zsub12 _ _ _ _ Ok2), (sub_nlevels _ _ zsub12).
  apply (zcore_sem s i te H Hk Hi Hte (nlevels s) r lvl c Ok Hc); auto. lia.
Qed.

Lemma zc_sem_levels' : forall e c,
  ref_ok s (eref e) -> ref_ok s2 (eref e) -> choice_ok s c ->
  sem_edge s2 e (swap_choice i c) = sem_edge s e c.
Proof.
  intros e c Ok Ok2 Hc. rewrite (sem_edge_z s2 _ _ zc_kind'), (sem_edge_z s _ _ Hk).
  rewrite (zc_view' (eref e) 0 c Ok Ok2 Hc); [reflexivity | lia | left; lia].
Qed.

Lemma zc_sem_vars' : forall e a, ref_ok s (eref e) -> ref_ok s2 (eref e) ->
  eval_vars s2 e a = eval_vars s e a.
Proof.
  intros e a Ok Ok2. unfold eval_vars.
  rewrite <- (zc_sem_levels' e (asg_choice s a) Ok Ok2 (asg_choice_ok s a)).
  rewrite !(sem_edge_z s2 _ _ zc_kind'). f_equal. unfold Zv.
  apply semz_ext. intros l _. apply (asg_choice_swapped s _ i a l Hi (proj1 zc_maps')).
Qed.

End WithTe.

(** ** the theorems (the Empty terminal exists by [ZbddOK]) *)

Lemma zte : exists te, zempty s = Some (RT te) /\ term_val s te = Some 0%N.
Proof. apply zempty_spec. exact B. Qed.

Theorem zc_wf : WF (level_swap_zc s i).
Proof. destruct zte as [te [Ez Hte]]. apply (zc_wf' te Ez Hte). Qed.

Theorem zc_kind : s_kind (level_swap_zc s i) = KZbdd.
Proof. destruct zte as [te [Ez Hte]]. apply (zc_kind' te Ez Hte). Qed.

Theorem zc_terms : s_terms (level_swap_zc s i) = s_terms s.
Proof. destruct zte as [te [Ez Hte]]. apply (zc_terms' te Ez Hte). Qed.

Theorem zc_nlevels : nlevels (level_swap_zc s i) = nlevels s.
Proof. destruct zte as [te [Ez Hte]]. apply (zc_nlevels' te Ez Hte). Qed.

(** (a) the invariant of ZBDD tables *)
Theorem zc_ok : ZbddOK (level_swap_zc s i).
Proof.
  constructor.
  - exact zc_wf.
  - exact zc_kind.
  - intros t v. unfold term_val. rewrite zc_terms. apply (zo_codes s B).
  - destruct (zo_empty s B) as [t E]. exists t. unfold term_val. rewrite zc_terms. exact E.
  - destruct (zo_base s B) as [t E]. exists t. unfold term_val. rewrite zc_terms. exact E.
Qed.

(** the two maps are those of [s] with the levels [i] and [i+1] exchanged *)
Theorem zc_maps :
  s_l2v (level_swap_zc s i) = swap_adj i (s_l2v s)
  /\ s_v2l (level_swap_zc s i) = map (swap_idx i) (s_v2l s)
  /\ (forall l, nth_error (s_l2v (level_swap_zc s i)) l = nth_error (s_l2v s) (swap_idx i l))
  /\ (forall v, nth_error (s_v2l (level_swap_zc s i)) v = option_map (swap_idx i) (nth_error (s_v2l s) v)).
Proof.
  destruct zte as [te [Ez Hte]]. destruct (zc_maps' te Ez Hte) as [A C].
  split; [exact A|]. split; [exact C|]. split.
  - intros l. rewrite A. apply nth_error_swap_adj. exact Hi.
  - intros v. rewrite C. apply nth_error_map.
Qed.

(** (c) handles *)
Theorem zc_handles : s_handles (level_swap_zc s i) = s_handles s.
Proof. destruct zte as [te [Ez Hte]]. apply (zc_handles' te Ez Hte). Qed.

Theorem zc_handle_ok : forall h, In h (s_handles s) -> ref_ok (level_swap_zc s i) (eref (snd h)).
Proof. destruct zte as [te [Ez Hte]]. apply (zc_handle_ok' te Ez Hte). Qed.

(** whatever a stored node of the result refers to is stored in the result *)
Theorem zc_child_ok : forall id nd e,
  find_node (level_swap_zc s i) id = Some nd -> In e (nchildren nd) -> ref_ok (level_swap_zc s i) (eref e).
Proof. intros id nd e E He. apply (wf_child _ zc_wf id nd e E He). Qed.

(** the only nodes that disappear: nodes of the old lower level that lost their last reference *)
Theorem zc_removed_only : forall id nd, find_node s id = Some nd ->
  find_node (level_swap_zc s i) id = None ->
  nlevel nd = S i /\ In id (dropped_children s i)
  /\ forall k kd e, find_node (level_swap_zc s i) k = Some kd -> In e (nchildren kd) -> eref e <> RN id.
Proof.
  destruct zte as [te [Ez Hte]]. intros id nd E E2.
  destruct (zc_removed_only' te Ez Hte id nd E E2) as [A [C D]].
  split; [exact A|]. split; [exact C|].
  intros k kd e Ek He Er. pose proof (zc_child_ok k kd e Ek He) as Ok. rewrite Er in Ok.
  destruct Ok as [x Ex]. congruence.
Qed.

(** (d) the other levels are not touched *)
Theorem zc_untouched : forall id nd, find_node s id = Some nd ->
  nlevel nd <> i -> nlevel nd <> S i -> find_node (level_swap_zc s i) id = Some nd.
Proof. destruct zte as [te [Ez Hte]]. apply (zc_untouched' te Ez Hte). Qed.

Theorem zc_untouched_rev : forall id nd, find_node (level_swap_zc s i) id = Some nd ->
  nlevel nd <> i -> nlevel nd <> S i -> find_node s id = Some nd.
Proof. destruct zte as [te [Ez Hte]]. apply (zc_untouched_rev' te Ez Hte). Qed.

(** (b) preservation of the Boolean view, over levels; also for the edges inside nodes
    (seen from any level that is not between the two swapped ones) *)
Theorem zc_view : forall r lvl c, ref_ok s r -> ref_ok (level_swap_zc s i) r -> choice_ok s c ->
  lvl <= rlevel s r -> (lvl <= i \/ S (S i) <= lvl) ->
  Zv (level_swap_zc s i) lvl r (swap_choice i c) = Zv s lvl r c.
Proof. destruct zte as [te [Ez Hte]]. apply (zc_view' te Ez Hte). Qed.

Theorem zc_sem_levels : forall e c,
  ref_ok s (eref e) -> ref_ok (level_swap_zc s i) (eref e) -> choice_ok s c ->
  sem_edge (level_swap_zc s i) e (swap_choice i c) = sem_edge s e c.
Proof. destruct zte as [te [Ez Hte]]. apply (zc_sem_levels' te Ez Hte). Qed.

(** (b) headline: the Boolean function over the VARIABLES is unchanged *)
Theorem zc_sem_vars : forall e a,
  ref_ok s (eref e) -> ref_ok (level_swap_zc s i) (eref e) ->
  eval_vars (level_swap_zc s i) e a = eval_vars s e a.
Proof. destruct zte as [te [Ez Hte]]. apply (zc_sem_vars' te Ez Hte). Qed.

Theorem zc_handles_vars : forall h a, In h (s_handles s) ->
  eval_vars (level_swap_zc s i) (snd h) a = eval_vars s (snd h) a
  /\ exists v, eval_vars s (snd h) a = Some v.
Proof.
  intros h a Hh. destruct (wf_handles s H h Hh) as [Ok _]. split.
  - apply zc_sem_vars; [exact Ok | apply zc_handle_ok; exact Hh].
  - apply handle_total; assumption.
Qed.

(** (b) the same FAMILY over the variables: the set of variables [a] is a member before iff
    it is a member afterwards *)
Theorem zc_fam_vars : forall e, ref_ok s (eref e) -> ref_ok (level_swap_zc s i) (eref e) ->
  exists F F', fam_of s (eref e) = Some F /\ fam_of (level_swap_zc s i) (eref e) = Some F'
    /\ forall a, fmem (set_levels (level_swap_zc s i) a) F' = fmem (set_levels s a) F.
Proof.
  intros e Ok Ok2.
  destruct (fam_of_total s H Hk (eref e) Ok) as [F EF].
  destruct (fam_of_total _ zc_wf zc_kind (eref e) Ok2) as [F' EF'].
  exists F, F'. split; [exact EF|]. split; [exact EF'|]. intros a.
  pose proof (zc_sem_vars e a Ok Ok2) as Hs.
  rewrite (eval_vars_fam s e a F H Hk Ok EF) in Hs.
  rewrite (eval_vars_fam _ e a F' zc_wf zc_kind Ok2 EF') in Hs.
  destruct (fmem (set_levels (level_swap_zc s i) a) F'), (fmem (set_levels s a) F);
    try reflexivity; inversion Hs.
Qed.

End ZC.
