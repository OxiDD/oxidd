(** * C08, part Z — [level_swap_zcore] preserves the family of every edge (ZBDD kind)

    [semz t fuel lvl r c] is the Boolean view of the family denoted by [r], read from level
    [lvl] on: levels that are skipped on the way down must be "lo" (variable absent).  For
    every reference [r] stored before the swap, every choice function [c] and every level
    [lvl] above both swapped levels or below both: the view of [r] in the new table under
    [c] with the entries of the two levels exchanged equals the view in the old table under
    [c] ([zcore_sem]).  [lvl = 0] gives [sem_edge]. *)

From Coq Require Import List NArith PArith Bool Arith Lia FMapPositive.
From OxiVerif Require Import DD.Table DD.TableExtra DD.TableProofs DD.Canon DD.CanonZbdd DD.Build DD.Apply
  DD.FamSpec DD.ZbddOps Mgr.SortOrder Mgr.SortOrderProofs
  Mgr.LevelSwap Mgr.LevelSwapBase Mgr.LevelSwapInv Mgr.LevelSwapWF Mgr.LevelSwapSem
  Mgr.LevelSwapZ Mgr.LevelSwapZInv Mgr.LevelSwapZWF.
Import ListNotations.

(** ** [all_lo] *)

Lemma all_lo_bounded_ext : forall c c' from cnt,
  (forall l, from <= l < from + cnt -> c l = c' l) -> all_lo c from cnt = all_lo c' from cnt.
Proof.
  intros c c' from cnt Hcc. apply eq_true_iff_eq. rewrite !all_lo_spec.
  split; intros Ha l Hl; [rewrite <- Hcc | rewrite Hcc]; auto.
Qed.

Lemma all_lo_app : forall c from n k,
  all_lo c from (n + k) = all_lo c from n && all_lo c (from + n) k.
Proof.
  intros c from n k. apply eq_true_iff_eq. rewrite andb_true_iff, !all_lo_spec. split.
  - intros Hs. split; intros l Hl; apply Hs; lia.
  - intros [A B] l Hl. destruct (Nat.lt_ge_cases l (from + n)); [apply A | apply B]; lia.
Qed.

(** exchanging the entries of two levels that are both inside or both outside the range *)
Lemma all_lo_swap : forall i c from cnt,
  (forall l, from <= l < from + cnt -> from <= swap_idx i l < from + cnt) ->
  all_lo (swap_choice i c) from cnt = all_lo c from cnt.
Proof.
  intros i c from cnt Hcl. apply eq_true_iff_eq. rewrite !all_lo_spec. unfold swap_choice.
  split; intros Ha l Hl.
  - rewrite <- (swap_idx_invol i l). apply Ha. apply Hcl. exact Hl.
  - apply Ha. apply Hcl. exact Hl.
Qed.

(** ** the view of a reference from a level above it *)

Section View.
Variable t : snap.
Hypothesis Ht : WF t.

Definition Zv (lvl : nat) (r : ref) (c : nat -> nat) : option bool := semz t (S (nlevels t)) lvl r c.

(** skipped levels in front of a reference: all lo, or the view is false *)
Lemma Zv_from : forall lvl r c, ref_ok t r -> lvl <= rlevel t r ->
  Zv lvl r c = if all_lo c lvl (rlevel t r - lvl) then Zv (rlevel t r) r c else Some false.
Proof.
  intros lvl r c Hok Hl. unfold Zv. destruct r as [tm|id].
  - rewrite !semz_T. destruct Hok as [v E]. rewrite E. simpl rlevel.
    rewrite Nat.sub_diag. simpl all_lo.
    destruct (all_lo c lvl (nlevels t - lvl)); [reflexivity | rewrite andb_false_r; reflexivity].
  - destruct Hok as [nd E]. rewrite !semz_S, E. rewrite (rlevel_node t id nd E) in *.
    destruct (Nat.ltb_spec (nlevel nd) lvl) as [Hlt|_]; [lia|].
    rewrite Nat.ltb_irrefl, Nat.sub_diag. simpl all_lo.
    destruct (all_lo c lvl (nlevel nd - lvl)); reflexivity.
Qed.

Lemma Zv_via : forall lvl m r c, ref_ok t r -> lvl <= m -> m <= rlevel t r ->
  Zv lvl r c = if all_lo c lvl (m - lvl) then Zv m r c else Some false.
Proof.
  intros lvl m r c Hok A B. rewrite (Zv_from lvl r c Hok), (Zv_from m r c Hok) by lia.
  replace (rlevel t r - lvl) with ((m - lvl) + (rlevel t r - m)) by lia.
  rewrite all_lo_app. replace (lvl + (m - lvl)) with m by lia.
  destruct (all_lo c lvl (m - lvl)); reflexivity.
Qed.

(** one skipped level *)
Lemma Zv_step : forall l r c, ref_ok t r -> S l <= rlevel t r ->
  Zv l r c = if Nat.eqb (c l) 1 then Zv (S l) r c else Some false.
Proof.
  intros l r c Hok Hl.
  rewrite (Zv_from l r c Hok) by lia. rewrite (Zv_from (S l) r c Hok) by lia.
  replace (rlevel t r - l) with (S (rlevel t r - S l)) by lia. simpl all_lo.
  destruct (Nat.eqb (c l) 1); reflexivity.
Qed.

(** a node seen from its own level *)
Lemma Zv_node : forall id nd x c,
  find_node t id = Some nd -> nth_error (nchildren nd) (c (nlevel nd)) = Some x ->
  Zv (nlevel nd) (RN id) c = Zv (S (nlevel nd)) (eref x) c.
Proof.
  intros id nd x c E Hx. apply (node_semz t Ht id nd x (nlevel nd) c E Hx (le_n _)).
  rewrite Nat.sub_diag. reflexivity.
Qed.

Lemma Zv_empty : forall lvl tm c, term_val t tm = Some 0%N -> Zv lvl (RT tm) c = Some false.
Proof. intros lvl tm c E. unfold Zv. rewrite semz_T, E. reflexivity. Qed.

End View.

Section SemZ.
Variable s : snap.
Variable i : nat.
Variable te : N.
Hypothesis H : WF s.
Hypothesis Hk : s_kind s = KZbdd.
Hypothesis Hi : S i < nlevels s.
Hypothesis Hte : term_val s te = Some 0%N.

Notation em := (emz te).
Let s1 := level_swap_zcore s em i.
Let M := swap_nodes_z s em i.
Let H1 : WF s1 := zcore_wf s i te H Hk Hi Hte.

Notation low := (low s i).
Notation isdep := (isdep s i).
Notation repz := (repz s i).
Notation isE := (isE s).
Notation zcof := (zbcof s em (S i)).

Lemma choice2 : forall c l, choice_ok s c -> c l < 2.
Proof. intros c l Hc. specialize (Hc l). rewrite Hk in Hc. exact Hc. Qed.

Lemma pick2 : forall (a b : edge) k, k < 2 -> nth_error [a; b] k = Some (if Nat.eqb k 0 then a else b).
Proof. intros a b [|[|k]] Hk'; [reflexivity | reflexivity | lia]. Qed.

(** a child of a node of the upper level, seen from the lower level: its cofactor w.r.t.
    the lower level, seen from below both *)
Lemma zcof_sem : forall id nd cc c, find_node s id = Some nd -> nlevel nd = i -> In cc (nchildren nd) ->
  choice_ok s c ->
  Zv s (S i) (eref cc) c = Zv s (S (S i)) (eref (zcof cc (c (S i)))) c.
Proof.
  intros id nd cc c E Hl Hc Hch. pose proof (choice2 c (S i) Hch) as Hb.
  destruct (zchild_cases s i te H Hk Hi Hte id nd cc E Hl Hc)
    as [[Hne [[Ok [_ Lv]] [S0 S1]]]|[cid [cn [g0 [g1 [-> [Ec [Lc [Cc [_ [_ [_ [B0 B1]]]]]]]]]]]]].
  - rewrite (Zv_step s (S i) (eref cc) c Ok) by lia.
    destruct (c (S i)) as [|[|b]]; [| |lia].
    + rewrite S0. simpl. symmetry. apply Zv_empty. exact Hte.
    + rewrite S1. reflexivity.
  - simpl eref at 1. rewrite <- Lc. rewrite (Zv_node s H cid cn (if Nat.eqb (c (S i)) 0 then g0 else g1) c Ec).
    + rewrite Lc. destruct (c (S i)) as [|[|b]]; [rewrite B0 | rewrite B1 | lia]; reflexivity.
    + rewrite Lc, Cc. apply pick2. exact Hb.
Qed.

(** the result of [reduce] + lookup on the new lower level, seen from that level *)
Lemma repz_sem : forall x y e c', repz M x y e -> low x -> low y -> c' (S i) < 2 ->
  Zv s1 (S i) (eref e) c' = Zv s1 (S (S i)) (eref (if Nat.eqb (c' (S i)) 0 then x else y)) c'.
Proof.
  intros x y e c' [[A ->]|[A [id [nd [-> [E [L C]]]]]]] Lx Ly Hb.
  - destruct (zlow1 s i te H Hk Hi Hte y Ly) as [Ok Lv]. destruct Ly as [_ [_ Lvy]].
    change (rlevel s1 (eref y) = rlevel s (eref y)) in Lv.
    rewrite (Zv_step s1 (S i) (eref y) c' Ok) by lia.
    destruct (c' (S i)) as [|[|b]]; [| |lia]; simpl.
    + destruct Lx as [_ [Tx _]]. rewrite (isE_eq s te H Hte x A Tx). simpl.
      symmetry. apply Zv_empty. exact Hte.
    + reflexivity.
  - simpl eref at 1. rewrite <- L.
    rewrite (Zv_node s1 H1 id nd (if Nat.eqb (c' (S i)) 0 then x else y) c' E).
    + rewrite L. reflexivity.
    + rewrite L, C. apply pick2. exact Hb.
Qed.

Lemma pre_swap : forall c lvl, lvl <= i ->
  all_lo (swap_choice i c) lvl (i - lvl) = all_lo c lvl (i - lvl).
Proof.
  intros c lvl Hl. apply all_lo_bounded_ext. intros l Hl'. unfold swap_choice.
  rewrite swap_idx_other by lia. reflexivity.
Qed.

(** keeps the arithmetic out of the induction of [zcore_sem] *)
Lemma rlevel_pair : forall r lvl, ref_ok s r -> lvl <= rlevel s r -> (lvl <= i \/ S (S i) <= lvl) ->
  i <= rlevel s r -> rlevel s r <= S i -> lvl <= i /\ i <= rlevel s1 r.
Proof.
  intros r lvl Hok Hlv Hside A B.
  destruct (zrlevel1 s i te H Hk Hi Hte r Hok) as [[X Y]|[[X [Y|Y]]|[X [Y Z]]]]; fold s1 in Y; lia.
Qed.

Lemma rlevel_other : forall r, ref_ok s r -> rlevel s r <> i -> rlevel s r <> S i ->
  rlevel s1 r = rlevel s r.
Proof.
  intros r Hok A B.
  destruct (zrlevel1 s i te H Hk Hi Hte r Hok) as [[X _]|[[X _]|[_ [_ X]]]]; [lia | lia | exact X].
Qed.

Theorem zcore_sem : forall k r lvl c, ref_ok s r -> choice_ok s c -> nlevels s - rlevel s r <= k ->
  lvl <= rlevel s r -> (lvl <= i \/ S (S i) <= lvl) ->
  Zv s1 lvl r (swap_choice i c) = Zv s lvl r c.
Proof.
  induction k as [k IH] using lt_wf_ind. intros r lvl c Hok Hc Hm Hlv Hside.
  set (c' := swap_choice i c).
  assert (Hc'i : c' i = c (S i)) by (unfold c', swap_choice; rewrite swap_idx_i; reflexivity).
  assert (Hc'S : c' (S i) = c i) by (unfold c', swap_choice; rewrite swap_idx_Si; reflexivity).
  pose proof (choice2 c i Hc) as Ha. pose proof (choice2 c (S i) Hc) as Hb.
  (* the induction hypothesis for an edge below both levels, seen from below both levels *)
  assert (IHlow : forall e, low e -> nlevels s - rlevel s (eref e) < k ->
                    Zv s1 (S (S i)) (eref e) c' = Zv s (S (S i)) (eref e) c).
  { intros e [Ok [_ Lv]] Hlt. apply (IH (nlevels s - rlevel s (eref e)) Hlt); auto; lia. }
  pose proof (zref_ok1 s i te H Hk Hi Hte r Hok) as Hok1.
  (* it suffices to look from a level [m] in front of which both tables skip the same levels
     under [c'] resp. [c]: [i] for a node of the two levels, its own level otherwise *)
  assert (Anchor : forall m, lvl <= m -> m <= rlevel s r -> m <= rlevel s1 r ->
            all_lo c' lvl (m - lvl) = all_lo c lvl (m - lvl) ->
            Zv s1 m r c' = Zv s m r c -> Zv s1 lvl r c' = Zv s lvl r c).
  { intros m A1 A2 A3 Hpre Hv.
    rewrite (Zv_via s lvl m r c Hok A1 A2), (Zv_via s1 lvl m r c' Hok1 A1 A3), Hpre, Hv. reflexivity. }
  destruct (Nat.eq_dec (rlevel s r) i) as [Li|Li]; [|destruct (Nat.eq_dec (rlevel s r) (S i)) as [LS|LS]].
  - (* a node of the upper level *)
    destruct (rlevel_pair r lvl Hok Hlv Hside) as [A1 A3]; [rewrite Li; apply le_n | rewrite Li; apply le_S, le_n |].
    apply (Anchor i A1); [rewrite Li; apply le_n | exact A3 | apply pre_swap; exact A1 |].
    destruct r as [tm|id]; [simpl in Li; lia|]. destruct Hok as [nd E].
    rewrite (rlevel_node s id nd E) in *.
    destruct (zbdd_children s te H Hk Hte id nd E) as [c0 [c1 [Hch _]]].
    set (ca := if Nat.eqb (c i) 0 then c0 else c1).
    assert (Hca : nth_error (nchildren nd) (c (nlevel nd)) = Some ca)
      by (rewrite Li, Hch; apply pick2; exact Ha).
    assert (Hina : In ca (nchildren nd)) by (eapply nth_error_In; exact Hca).
    pose proof (Zv_node s H id nd ca c E Hca) as Hs. rewrite Li in Hs. rewrite Hs. clear Hs.
    destruct (isdep_dec s i nd) as [D|D].
    + (* rewritten *)
      destruct (spec_dep (swap_nodes_z_spec s i te H Hk Hi Hte) id nd E D)
        as [d0 [d1 [e0 [e1 [Hd [Hf [R0 R1]]]]]]].
      rewrite Hch in Hd. inversion Hd; subst d0 d1. clear Hd.
      destruct (zdep_lows s i te H Hk Hi Hte id nd c0 c1 E D Hch) as [L00 [L10 [L01 L11]]].
      set (nn := mkNode i [e0; e1] i (nrc nd)) in *.
      assert (Hf1 : find_node s1 id = Some nn) by exact Hf.
      set (eb := if Nat.eqb (c (S i)) 0 then e0 else e1).
      assert (Heb : nth_error (nchildren nn) (c' (nlevel nn)) = Some eb)
        by (simpl; rewrite Hc'i; apply pick2; exact Hb).
      pose proof (Zv_node s1 H1 id nn eb c' Hf1 Heb) as Hs. simpl nlevel in Hs. rewrite Hs. clear Hs.
      rewrite (zcof_sem id nd ca c E Li Hina Hc).
      assert (Hb' : c' (S i) < 2) by (rewrite Hc'S; exact Ha).
      assert (Hmeas : forall e, low e -> nlevels s - rlevel s (eref e) < k).
      { intros e [_ [_ Lv]]. pose proof (rlevel_le s H (eref e)). lia. }
      unfold eb, ca. destruct (c (S i)) as [|[|b]] eqn:Eb; [| |lia]; simpl Nat.eqb; cbv iota.
      * rewrite (repz_sem _ _ e0 c' R0 L00 L10 Hb'). rewrite Hc'S.
        destruct (Nat.eqb (c i) 0); apply IHlow; auto.
      * rewrite (repz_sem _ _ e1 c' R1 L01 L11 Hb'). rewrite Hc'S.
        destruct (Nat.eqb (c i) 0); apply IHlow; auto.
    + (* moves down: the old table skips level [S i] below the node, the new one level [i] above it *)
      pose proof (spec_old (swap_nodes_z_spec s i te H Hk Hi Hte) id nd E D) as Hf.
      assert (Dp : depends s (S i) nd = false).
      { destruct (depends s (S i) nd) eqn:Dq; [|reflexivity]. exfalso. apply D. split; assumption. }
      rewrite (relabel_indep s i nd Li Dp) in Hf.
      set (nn := set_level nd (S i)) in *.
      assert (Hf1 : find_node s1 id = Some nn) by exact Hf.
      destruct (wf_child s H id nd ca E Hina) as [Oka Lta].
      pose proof (depends_false s i nd ca Dp Hina) as Hnl.
      assert (Lowa : low ca).
      { split; [exact Oka|]. split; [apply (zbdd_tag s H Hk id nd ca E Hina) | lia]. }
      rewrite (Zv_step s1 i (RN id) c' Hok1) by (rewrite (rlevel_node s1 id nn Hf1); simpl; lia).
      rewrite (Zv_step s (S i) (eref ca) c Oka) by lia. rewrite Hc'i.
      destruct (Nat.eqb (c (S i)) 1); [|reflexivity].
      assert (Hca1 : nth_error (nchildren nn) (c' (nlevel nn)) = Some ca).
      { simpl. rewrite Hc'S, Hch. apply pick2. exact Ha. }
      pose proof (Zv_node s1 H1 id nn ca c' Hf1 Hca1) as Hs. simpl nlevel in Hs. rewrite Hs. clear Hs.
      apply IHlow; [exact Lowa|]. pose proof (rlevel_le s H (eref ca)). lia.
  - (* a node of the lower level moves up: the old table skips level [i] above it, the new one
       level [S i] below it *)
    destruct (rlevel_pair r lvl Hok Hlv Hside) as [A1 A3]; [rewrite LS; apply le_S, le_n | rewrite LS; apply le_n |].
    apply (Anchor i A1); [rewrite LS; apply le_S, le_n | exact A3 | apply pre_swap; exact A1 |].
    destruct r as [tm|id]; [simpl in LS; lia|]. destruct Hok as [nd E].
    rewrite (rlevel_node s id nd E) in *.
    destruct (zbdd_children s te H Hk Hte id nd E) as [g0 [g1 [Hch _]]].
    assert (D : ~ isdep nd) by (intros [Dl _]; lia).
    pose proof (spec_old (swap_nodes_z_spec s i te H Hk Hi Hte) id nd E D) as Hf.
    rewrite (relabel_lower s i nd LS) in Hf.
    set (nn := set_level nd i) in *.
    assert (Hf1 : find_node s1 id = Some nn) by exact Hf.
    set (gb := if Nat.eqb (c (S i)) 0 then g0 else g1).
    assert (Hgb : nth_error (nchildren nd) (c (nlevel nd)) = Some gb)
      by (rewrite LS, Hch; apply pick2; exact Hb).
    assert (Hing : In gb (nchildren nd)) by (eapply nth_error_In; exact Hgb).
    destruct (wf_child s H id nd gb E Hing) as [Okg Ltg].
    assert (Lowg : low gb).
    { split; [exact Okg|]. split; [apply (zbdd_tag s H Hk id nd gb E Hing) | lia]. }
    destruct (zlow1 s i te H Hk Hi Hte gb Lowg) as [Okg1 Lvg1].
    change (rlevel s1 (eref gb) = rlevel s (eref gb)) in Lvg1.
    rewrite (Zv_step s i (RN id) c) by (try (exists nd; exact E); rewrite (rlevel_node s id nd E); lia).
    pose proof (Zv_node s H id nd gb c E Hgb) as Hs. rewrite LS in Hs. rewrite Hs. clear Hs.
    assert (Hgb1 : nth_error (nchildren nn) (c' (nlevel nn)) = Some gb).
    { simpl. rewrite Hc'i, Hch. apply pick2. exact Hb. }
    pose proof (Zv_node s1 H1 id nn gb c' Hf1 Hgb1) as Hs. simpl nlevel in Hs. rewrite Hs. clear Hs.
    rewrite (Zv_step s1 (S i) (eref gb) c' Okg1) by lia. rewrite Hc'S.
    destruct (Nat.eqb (c i) 1); [|reflexivity].
    apply IHlow; [exact Lowg|]. pose proof (rlevel_le s H (eref gb)). lia.
  - (* everything else is not touched *)
    pose proof (rlevel_other r Hok Li LS) as Hr1'.
    apply (Anchor (rlevel s r)); [exact Hlv | apply le_n | rewrite Hr1'; apply le_n | |].
    { apply all_lo_swap. intros l Hl.
      destruct (swap_idx_cases i l) as [[-> ->]|[[-> ->]|[A [B ->]]]]; lia. }
    destruct r as [tm|id].
    + assert (Hn1 : nlevels s1 = nlevels s) by (apply (znlevels1 s i te)).
      unfold Zv. rewrite !semz_T. simpl rlevel. rewrite Hn1, !Nat.sub_diag. reflexivity.
    + destruct Hok as [nd E]. rewrite (rlevel_node s id nd E) in *.
      destruct (old_stays s i _ _ (rebuiltz_find s i te) _ (swap_nodes_z_spec s i te H Hk Hi Hte) id nd E) as [nd' [E' [[A _]|[[A _]|[_ [_ ->]]]]]]; [lia | lia |].
      assert (Hf1 : find_node s1 id = Some nd) by exact E'.
      destruct (zbdd_children s te H Hk Hte id nd E) as [g0 [g1 [Hch _]]].
      pose proof (choice2 c (nlevel nd) Hc) as Hx.
      set (gx := if Nat.eqb (c (nlevel nd)) 0 then g0 else g1).
      assert (Hgx : nth_error (nchildren nd) (c (nlevel nd)) = Some gx) by (rewrite Hch; apply pick2; exact Hx).
      assert (Hgx1 : nth_error (nchildren nd) (c' (nlevel nd)) = Some gx).
      { unfold c', swap_choice. rewrite swap_idx_other by lia. exact Hgx. }
      rewrite (Zv_node s H id nd gx c E Hgx), (Zv_node s1 H1 id nd gx c' Hf1 Hgx1).
      assert (Hing : In gx (nchildren nd)) by (eapply nth_error_In; exact Hgx).
      destruct (wf_child s H id nd gx E Hing) as [Okg Ltg].
      pose proof (rlevel_le s H (eref gx)).
      apply (IH (nlevels s - rlevel s (eref gx))); auto; lia.
Qed.

End SemZ.
