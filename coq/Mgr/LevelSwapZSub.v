(** * C08, part Z — removing unreferenced nodes from a table

    [subsnap s s']: [s'] is [s] with some nodes removed such that nothing that is left
    (stored node or handle) refers to a removed node.  Such a table is again well-formed
    and every reference that is left has the same view ([semz]).  Instances: the removal of
    old-lower nodes that lost their last reference at the end of [level_swap] ([sweep]) and
    [ZBDDCache::pre_reorder_mut] ([zchain_drop]: one unreferenced node after the other). *)

From Coq Require Import List NArith PArith Bool Arith Lia FMapPositive.
From OxiVerif Require Import DD.Table DD.TableExtra DD.TableProofs Mgr.LevelSwap Mgr.LevelSwapBase.
Import ListNotations.

Record subsnap (s s' : snap) : Prop := mkSub {
  sub_kind : s_kind s' = s_kind s;
  sub_terms : s_terms s' = s_terms s;
  sub_v2l : s_v2l s' = s_v2l s;
  sub_l2v : s_l2v s' = s_l2v s;
  sub_handles : s_handles s' = s_handles s;
  sub_nodes : forall id nd, find_node s' id = Some nd -> find_node s id = Some nd;
  sub_child : forall id nd e, find_node s' id = Some nd -> In e (nchildren nd) -> ref_ok s' (eref e);
  sub_hok : forall h, In h (s_handles s') -> ref_ok s' (eref (snd h))
}.

Lemma sub_nlevels : forall s s', subsnap s s' -> nlevels s' = nlevels s.
Proof. intros s s' X. unfold nlevels. rewrite (sub_l2v _ _ X). reflexivity. Qed.

Lemma sub_term_val : forall s s' t, subsnap s s' -> term_val s' t = term_val s t.
Proof. intros s s' t X. unfold term_val. rewrite (sub_terms _ _ X). reflexivity. Qed.

Lemma sub_ref_ok : forall s s' r, subsnap s s' -> ref_ok s' r -> ref_ok s r.
Proof.
  intros s s' [t|id] X; simpl.
  - rewrite (sub_term_val _ _ t X). auto.
  - intros [nd E]. exists nd. apply (sub_nodes _ _ X). exact E.
Qed.

Lemma sub_rlevel : forall s s' r, subsnap s s' -> ref_ok s' r -> rlevel s' r = rlevel s r.
Proof.
  intros s s' [t|id] X; simpl.
  - intros _. apply sub_nlevels. exact X.
  - intros [nd E]. rewrite E, (sub_nodes _ _ X id nd E). reflexivity.
Qed.

Lemma subsnap_refl : forall s, WF s -> subsnap s s.
Proof.
  intros s H. constructor; auto.
  - intros id nd e E He. apply (wf_child s H id nd e E He).
  - intros h Hh. apply (wf_handles s H h Hh).
Qed.

Lemma subsnap_trans : forall a b c, subsnap a b -> subsnap b c -> subsnap a c.
Proof.
  intros a b c X Y. constructor.
  - rewrite (sub_kind _ _ Y). apply (sub_kind _ _ X).
  - rewrite (sub_terms _ _ Y). apply (sub_terms _ _ X).
  - rewrite (sub_v2l _ _ Y). apply (sub_v2l _ _ X).
  - rewrite (sub_l2v _ _ Y). apply (sub_l2v _ _ X).
  - rewrite (sub_handles _ _ Y). apply (sub_handles _ _ X).
  - intros id nd E. apply (sub_nodes _ _ X). apply (sub_nodes _ _ Y). exact E.
  - apply (sub_child _ _ Y).
  - apply (sub_hok _ _ Y).
Qed.

Theorem subsnap_wf : forall s s', WF s -> subsnap s s' -> WF s'.
Proof.
  intros s s' H X. pose proof (sub_nlevels _ _ X) as Hn.
  constructor.
  - rewrite (sub_v2l _ _ X), (sub_l2v _ _ X). apply (wf_perm_len s H).
  - rewrite (sub_v2l _ _ X), (sub_l2v _ _ X). apply (wf_perm_v2l s H).
  - rewrite (sub_v2l _ _ X), (sub_l2v _ _ X). apply (wf_perm_l2v s H).
  - intros id nd E. rewrite (sub_kind _ _ X). apply (wf_arity s H id nd (sub_nodes _ _ X id nd E)).
  - intros id nd E. apply (wf_stored s H id nd (sub_nodes _ _ X id nd E)).
  - intros id nd E. rewrite Hn. apply (wf_level s H id nd (sub_nodes _ _ X id nd E)).
  - intros id nd e E He. pose proof (sub_child _ _ X id nd e E He) as Ok. split; [exact Ok|].
    rewrite (sub_rlevel _ _ _ X Ok). apply (wf_child s H id nd e (sub_nodes _ _ X id nd E) He).
  - intros id nd E. pose proof (wf_reduced s H id nd (sub_nodes _ _ X id nd E)) as Hr.
    unfold reduced in *. rewrite (sub_kind _ _ X).
    destruct (s_kind s); try exact Hr.
    destruct Hr as [hi [A B]]. exists hi. split; [exact A|]. intros t Er.
    rewrite (sub_term_val _ _ t X). apply B. exact Er.
  - rewrite (sub_kind _ _ X). intros Hnb id nd e E He.
    apply (wf_tags s H Hnb id nd e (sub_nodes _ _ X id nd E) He).
  - intros id1 id2 n1 n2 E1 E2.
    apply (wf_unique s H id1 id2 n1 n2 (sub_nodes _ _ X _ _ E1) (sub_nodes _ _ X _ _ E2)).
  - rewrite (sub_terms _ _ X). apply (wf_term_ids s H).
  - rewrite (sub_terms _ _ X). apply (wf_term_vals s H).
  - intros h Hh. split; [apply (sub_hok _ _ X h Hh)|]. rewrite (sub_kind _ _ X).
    rewrite (sub_handles _ _ X) in Hh. apply (wf_handles s H h Hh).
Qed.

(** removing unreferenced nodes changes no interpretation *)
Lemma subsnap_semk : forall s s', subsnap s s' ->
  forall f r c, ref_ok s' r -> semk s' f r c = semk s f r c.
Proof.
  intros s s' X. induction f as [|f IH]; intros r c Ok.
  - destruct r as [t|id]; [rewrite !semk_T; apply (sub_term_val _ _ t X) | reflexivity].
  - destruct r as [t|id]; [rewrite !semk_T; apply (sub_term_val _ _ t X)|].
    destruct Ok as [nd E]. rewrite !semk_S, E, (sub_nodes _ _ X id nd E).
    destruct (nth_error (nchildren nd) (c (nlevel nd))) as [e|] eqn:He; [|reflexivity].
    apply IH. apply (sub_child _ _ X id nd e E). eapply nth_error_In. exact He.
Qed.

Lemma subsnap_semc : forall s s', subsnap s s' ->
  forall f e c, ref_ok s' (eref e) -> semc s' f e c = semc s f e c.
Proof.
  intros s s' X. induction f as [|f IH]; intros e c Ok.
  - destruct (eref e) as [t|id] eqn:Er.
    + rewrite !(semc_T _ _ _ _ t Er). reflexivity.
    + rewrite !(semc_O _ _ _ id Er). reflexivity.
  - destruct (eref e) as [t|id] eqn:Er.
    + rewrite !(semc_T _ _ _ _ t Er). reflexivity.
    + destruct Ok as [nd E]. rewrite !(semc_S _ _ _ _ id Er), E, (sub_nodes _ _ X id nd E).
      destruct (nth_error (nchildren nd) (c (nlevel nd))) as [e'|] eqn:He; [|reflexivity].
      rewrite IH; [reflexivity|]. apply (sub_child _ _ X id nd e' E). eapply nth_error_In. exact He.
Qed.

(** removing unreferenced nodes changes no view *)
Lemma subsnap_semz : forall s s', subsnap s s' ->
  forall f lvl r c, ref_ok s' r -> semz s' f lvl r c = semz s f lvl r c.
Proof.
  intros s s' X. induction f as [|f IH]; intros lvl r c Ok.
  - destruct r as [t|id]; [|reflexivity].
    rewrite !semz_T, (sub_term_val _ _ t X), (sub_nlevels _ _ X). reflexivity.
  - destruct r as [t|id].
    + rewrite !semz_T, (sub_term_val _ _ t X), (sub_nlevels _ _ X). reflexivity.
    + destruct Ok as [nd E]. rewrite !semz_S, E, (sub_nodes _ _ X id nd E).
      destruct (Nat.ltb (nlevel nd) lvl); [reflexivity|].
      destruct (all_lo c lvl (nlevel nd - lvl)); [|reflexivity].
      destruct (nth_error (nchildren nd) (c (nlevel nd))) as [e|] eqn:He; [|reflexivity].
      apply IH. apply (sub_child _ _ X id nd e E). eapply nth_error_In. exact He.
Qed.

Lemma subsnap_sem_edge : forall s s' e c, subsnap s s' -> s_kind s = KZbdd -> ref_ok s' (eref e) ->
  sem_edge s' e c = sem_edge s e c.
Proof.
  intros s s' e c X Hk Ok. unfold sem_edge. rewrite (sub_kind _ _ X), Hk, (sub_nlevels _ _ X).
  rewrite (subsnap_semz s s' X _ _ _ _ Ok). reflexivity.
Qed.

(** ** removing a list of ids at once *)

Definition without (s : snap) (l : list positive) : snap :=
  mkSnap (s_kind s) (fold_left (fun acc id => PositiveMap.remove id acc) l (s_nodes s))
         (s_terms s) (s_v2l s) (s_l2v s) (s_handles s).

Lemma find_without : forall s l id,
  find_node (without s l) id = if existsb (Pos.eqb id) l then None else find_node s id.
Proof. intros s l id. unfold find_node, without. cbn [s_nodes]. apply find_remove_list. Qed.

(** none of the removed ids is referenced in [s]: then in particular not by what is left *)
Lemma without_subsnap : forall s l, WF s ->
  (forall id, In id l -> referenced (s_nodes s) (s_handles s) id = false) ->
  subsnap s (without s l).
Proof.
  intros s l H Hun.
  assert (Hsub : forall id nd, find_node (without s l) id = Some nd -> find_node s id = Some nd).
  { intros id nd E. rewrite find_without in E. destruct (existsb (Pos.eqb id) l); [discriminate | exact E]. }
  assert (Hkeep : forall id nd, find_node s id = Some nd ->
            referenced (s_nodes s) (s_handles s) id = true -> find_node (without s l) id = Some nd).
  { intros id nd E R. rewrite find_without. destruct (existsb (Pos.eqb id) l) eqn:X; [|exact E].
    apply existsb_pos_In in X. rewrite (Hun id X) in R. discriminate. }
  constructor; try reflexivity.
  - exact Hsub.
  - intros id nd e E He. destruct (wf_child s H id nd e (Hsub id nd E) He) as [Ok _].
    destruct (eref e) as [t|c] eqn:Er; [exact Ok|]. destruct Ok as [cn Ec]. exists cn.
    apply (Hkeep c cn Ec). apply referenced_spec. left. exists id, nd, e. split; [apply Hsub; exact E | auto].
  - intros h Hh. destruct (wf_handles s H h Hh) as [Ok _].
    destruct (eref (snd h)) as [t|c] eqn:Er; [exact Ok|]. destruct Ok as [cn Ec]. exists cn.
    apply (Hkeep c cn Ec). apply referenced_spec. right. exists h. auto.
Qed.
