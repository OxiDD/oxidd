(** * C08, part Z — [level_swap_zcore] keeps a ZBDD table well-formed

    From the relational specification of the node table after the loop ([swap_nodes_z_spec],
    Mgr/LevelSwapZInv.v): the table is again ordered, zero-suppressed (no stored node has
    the Empty terminal as hi child -- also not the rewritten nodes, which the code does not
    pass through [reduce]), per-level unique; the variable/level maps are inverse
    permutations with the two levels exchanged. *)

From Coq Require Import List NArith PArith Bool Arith Lia FMapPositive.
From OxiVerif Require Import DD.Table DD.TableExtra DD.TableProofs DD.Build DD.Apply DD.FamSpec DD.ZbddOps
  Mgr.SortOrder Mgr.SortOrderProofs Mgr.LevelSwap Mgr.LevelSwapBase Mgr.LevelSwapInv Mgr.LevelSwapWF
  Mgr.LevelSwapZ Mgr.LevelSwapZInv.
Import ListNotations.

Section CoreZ.
Variable s : snap.
Variable i : nat.
Variable te : N.
Hypothesis H : WF s.
Hypothesis Hk : s_kind s = KZbdd.
Hypothesis Hi : S i < nlevels s.
Hypothesis Hte : term_val s te = Some 0%N.

Notation em := (emz te).
Let s1 := level_swap_zcore s em i.
Let M := swap_nodes_z s em i.
Let SP : Spec s i (goodnewz s i) (rebuiltz s i te) M := swap_nodes_z_spec s i te H Hk Hi Hte.

Notation low := (low s i).
Notation isdep := (isdep s i).
Notation repz := (repz s i).
Notation isE := (isE s).
Notation zcof := (zbcof s em (S i)).

Lemma zfind1 : forall id, find_node s1 id = PositiveMap.find id M.
Proof. reflexivity. Qed.

Lemma znlevels1 : nlevels s1 = nlevels s.
Proof. unfold nlevels, s1, level_swap_zcore. simpl. apply swap_adj_length. Qed.

Lemma zterm_val1 : forall t, term_val s1 t = term_val s t.
Proof. reflexivity. Qed.

Lemma zkind1 : s_kind s1 = s_kind s.
Proof. reflexivity. Qed.

(** every stored node of the new table is of one of three sorts *)
Lemma zfind_cases : forall id nd', PositiveMap.find id M = Some nd' ->
  (exists nd, find_node s id = Some nd /\ ~ isdep nd /\ nd' = relabel s i nd)
  \/ (exists nd c0 c1 e0 e1, find_node s id = Some nd /\ isdep nd /\ nchildren nd = [c0; c1]
        /\ nd' = mkNode i [e0; e1] i (nrc nd)
        /\ repz M (zcof c0 0) (zcof c1 0) e0
        /\ repz M (zcof c0 1) (zcof c1 1) e1)
  \/ (find_node s id = None /\ goodnewz s i nd').
Proof.
  intros id nd' E.
  destruct (swapped_cases s i _ _ M SP id nd' E) as [C|[[nd [E0 [D R]]]|C]]; [left; exact C | | right; right; exact C].
  right. left. destruct R as [c0 [c1 [e0 [e1 [Hc [Hf [R0 R1]]]]]]].
  exists nd, c0, c1, e0, e1. rewrite E in Hf. inversion Hf; subst nd'. auto 10.
Qed.

Notation zold_stays := (old_stays s i _ _ (rebuiltz_find s i te) M SP).

Lemma zref_ok1 : forall r, ref_ok s r -> ref_ok s1 r.
Proof. exact (swapped_ref_ok s i _ _ (rebuiltz_find s i te) M SP). Qed.

(** the level of an old reference in the new table *)
Lemma zrlevel1 : forall r, ref_ok s r ->
  (rlevel s r = S i /\ rlevel s1 r = i)
  \/ (rlevel s r = i /\ (rlevel s1 r = i \/ rlevel s1 r = S i))
  \/ (rlevel s r <> i /\ rlevel s r <> S i /\ rlevel s1 r = rlevel s r).
Proof. exact (swapped_rlevel s i Hi _ _ (rebuiltz_find s i te) M SP). Qed.

Lemma zlow1 : forall e, low e -> ref_ok s1 (eref e) /\ rlevel s1 (eref e) = rlevel s (eref e).
Proof.
  intros e [Hok [_ Hl]]. split; [apply zref_ok1; exact Hok|].
  destruct (zrlevel1 _ Hok) as [[A _]|[[A _]|[_ [_ A]]]]; [lia | lia | exact A].
Qed.

(** what the result of [reduce] + lookup looks like in the new table *)
Lemma repz_props : forall x y e, repz M x y e -> low x -> low y ->
  ref_ok s1 (eref e) /\ etag e = false /\ S i <= rlevel s1 (eref e)
  /\ (isE x -> S i < rlevel s1 (eref e) /\ e = y) /\ (~ isE x -> rlevel s1 (eref e) = S i).
Proof.
  intros x y e [[A ->]|[A [id [nd [-> [E [L C]]]]]]] Lx Ly.
  - destruct (zlow1 y Ly) as [B C]. destruct Ly as [_ [T Lv]].
    split; [exact B|]. split; [exact T|]. split; [lia|]. split; [intros _; split; [lia | reflexivity] | contradiction].
  - simpl. split; [exists nd; exact E|]. split; [reflexivity|].
    rewrite zfind1, E, L. split; [lia|]. split; [contradiction | reflexivity].
Qed.

Lemma repz_inj : forall x y x' y' e, repz M x y e -> repz M x' y' e ->
  low x -> low y -> low x' -> low y' -> x = x' /\ y = y'.
Proof.
  intros x y x' y' e R R' Lx Ly Lx' Ly'.
  destruct (repz_props _ _ _ R Lx Ly) as [_ [_ [_ [A B]]]].
  destruct (repz_props _ _ _ R' Lx' Ly') as [_ [_ [_ [A' B']]]].
  destruct R as [[P ->]|[P [id [nd [-> [E [L C]]]]]]]; destruct R' as [[P' Q']|[P' [id' [nd' [Q' [E' [L' C']]]]]]].
  - subst. split; [|reflexivity].
    destruct Lx as [_ [Tx _]]. destruct Lx' as [_ [Tx' _]].
    rewrite (isE_eq s te H Hte x P Tx), (isE_eq s te H Hte x' P' Tx'). reflexivity.
  - exfalso. destruct (A P) as [A1 _]. specialize (B' P'). lia.
  - exfalso. destruct (A' P') as [A1 _]. specialize (B P). lia.
  - inversion Q'; subst id'. rewrite E in E'. inversion E'; subst nd'. rewrite C in C'.
    inversion C'. auto.
Qed.

(** an edge that is not the Empty terminal, in terms of [reduced] *)
Lemma notE_term : forall e t, ~ isE e -> eref e = RT t -> term_val s t <> Some 0%N.
Proof.
  intros e t Hne Er Ev. apply Hne. unfold LevelSwapZInv.isE, is_empty_b, is_term_with. rewrite Er, Ev. reflexivity.
Qed.

(** ** well-formedness of the new table *)

(** the four cofactors of a node to rewrite are below both levels *)
Lemma zdep_lows : forall id nd c0 c1, find_node s id = Some nd -> isdep nd -> nchildren nd = [c0; c1] ->
  low (zcof c0 0) /\ low (zcof c1 0) /\ low (zcof c0 1) /\ low (zcof c1 1).
Proof.
  intros id nd c0 c1 E0 [Dl _] Hc.
  assert (Hin0 : In c0 (nchildren nd)) by (rewrite Hc; simpl; auto).
  assert (Hin1 : In c1 (nchildren nd)) by (rewrite Hc; simpl; auto).
  repeat split; eapply (zcof_low s i te H Hk Hi Hte id nd); eauto.
Qed.

Lemma zwf1_child : forall id nd e, find_node s1 id = Some nd -> In e (nchildren nd) ->
  ref_ok s1 (eref e) /\ nlevel nd < rlevel s1 (eref e).
Proof.
  intros id nd' e E He. rewrite zfind1 in E.
  destruct (zfind_cases id nd' E) as [[nd [E0 [D ->]]]|[[nd [c0 [c1 [e0 [e1 [E0 [D [Hc [-> [R0 R1]]]]]]]]]]|[E0 G]]].
  - rewrite relabel_children in He.
    apply (swapped_child_old s i H Hi _ _ (rebuiltz_find s i te) M SP id nd e E0 D He).
  - simpl in He. destruct (zdep_lows id nd c0 c1 E0 D Hc) as [L00 [L10 [L01 L11]]].
    destruct He as [<-|[<-|[]]].
    + destruct (repz_props _ _ _ R0 L00 L10) as [A [_ [B _]]]. split; [exact A | simpl; lia].
    + destruct (repz_props _ _ _ R1 L01 L11) as [A [_ [B _]]]. split; [exact A | simpl; lia].
  - destruct G as [Gl [_ [x [y [Gc [_ [Lx Ly]]]]]]]. rewrite Gc in He. rewrite Gl.
    destruct He as [<-|[<-|[]]].
    + destruct (zlow1 _ Lx) as [A B]. destruct Lx as [_ [_ Lv]]. split; [exact A | lia].
    + destruct (zlow1 _ Ly) as [A B]. destruct Ly as [_ [_ Lv]]. split; [exact A | lia].
Qed.

(** the rewritten children of a node determine its old children *)
Lemma zdep_children_inj : forall id nd c0 c1 e0 e1 id' nd' d0 d1,
  find_node s id = Some nd -> isdep nd -> nchildren nd = [c0; c1] ->
  repz M (zcof c0 0) (zcof c1 0) e0 -> repz M (zcof c0 1) (zcof c1 1) e1 ->
  find_node s id' = Some nd' -> isdep nd' -> nchildren nd' = [d0; d1] ->
  repz M (zcof d0 0) (zcof d1 0) e0 -> repz M (zcof d0 1) (zcof d1 1) e1 ->
  c0 = d0 /\ c1 = d1.
Proof.
  intros id nd c0 c1 e0 e1 id' nd' d0 d1 E D Hc R0 R1 E' D' Hd Q0 Q1.
  destruct (zdep_lows id nd c0 c1 E D Hc) as [A [B [C F]]].
  destruct (zdep_lows id' nd' d0 d1 E' D' Hd) as [A' [B' [C' F']]].
  destruct (repz_inj _ _ _ _ _ R0 Q0 A B A' B') as [X0 Y0].
  destruct (repz_inj _ _ _ _ _ R1 Q1 C F C' F') as [X1 Y1].
  destruct D as [Dl _]. destruct D' as [Dl' _].
  split.
  - apply (zcof_inj s i te H Hk Hi Hte id nd c0 id' nd' d0 E Dl ltac:(rewrite Hc; simpl; auto)
             E' Dl' ltac:(rewrite Hd; simpl; auto) X0 X1).
  - apply (zcof_inj s i te H Hk Hi Hte id nd c1 id' nd' d1 E Dl ltac:(rewrite Hc; simpl; auto)
             E' Dl' ltac:(rewrite Hd; simpl; auto) Y0 Y1).
Qed.

(** one of the rewritten children lies on the new lower level *)
Lemma zdep_touches : forall id nd c0 c1 e0 e1,
  find_node s id = Some nd -> isdep nd -> nchildren nd = [c0; c1] ->
  repz M (zcof c0 0) (zcof c1 0) e0 -> repz M (zcof c0 1) (zcof c1 1) e1 ->
  rlevel s1 (eref e0) = S i \/ rlevel s1 (eref e1) = S i.
Proof.
  intros id nd c0 c1 e0 e1 E D Hc R0 R1.
  destruct (zdep_lows id nd c0 c1 E D Hc) as [A [B [C F]]].
  destruct (repz_props _ _ _ R0 A B) as [_ [_ [_ [_ N0]]]].
  destruct (repz_props _ _ _ R1 C F) as [_ [_ [_ [_ N1]]]].
  destruct (isE_dec s (zcof c0 0)) as [Q0|Q0]; [|left; apply N0; exact Q0].
  destruct (isE_dec s (zcof c0 1)) as [Q1|Q1]; [|right; apply N1; exact Q1].
  exfalso. destruct D as [Dl _].
  apply (zdep_c0 s i te H Hk Hi Hte id nd c0 c1 E Dl Hc). auto.
Qed.

(** the hi child of a rewritten node is not the Empty terminal *)
Lemma zdep_hi_notE : forall id nd c0 c1 e0,
  find_node s id = Some nd -> isdep nd -> nchildren nd = [c0; c1] ->
  repz M (zcof c0 0) (zcof c1 0) e0 -> ~ isE e0.
Proof.
  intros id nd c0 c1 e0 E D Hc [[A ->]|[A [k [kd [-> _]]]]].
  - intros B. apply (zdep_hi0 s i te H Hk Hi Hte id nd c0 c1 E D Hc). auto.
  - unfold LevelSwapZInv.isE. simpl. discriminate.
Qed.

Lemma zwf1_unique : forall id1 id2 n1 n2,
  find_node s1 id1 = Some n1 -> find_node s1 id2 = Some n2 ->
  nlevel n1 = nlevel n2 -> nchildren n1 = nchildren n2 -> id1 = id2.
Proof.
  apply (swapped_unique s i H Hi _ _ (rebuiltz_find s i te) (goodnewz_level s i) M SP).
  - intros id nd nd' E D E'. destruct (spec_dep SP id nd E D) as [c0 [c1 [e0 [e1 [Hc [Hf [R0 R1]]]]]]].
    rewrite E' in Hf. inversion Hf; subst nd'.
    destruct (zdep_touches id nd c0 c1 e0 e1 E D Hc R0 R1) as [T|T]; [exists e0 | exists e1];
      (split; [simpl; auto | exact T]).
  - intros id1 m1 n1 id2 m2 n2 F1 D1 E1 F2 D2 E2 Hch.
    destruct (spec_dep SP id1 m1 F1 D1) as [c0 [c1 [e0 [e1 [C1 [Hf1 [R0 R1]]]]]]].
    destruct (spec_dep SP id2 m2 F2 D2) as [d0 [d1 [f0 [f1 [C2 [Hf2 [Q0 Q1]]]]]]].
    rewrite E1 in Hf1. rewrite E2 in Hf2. inversion Hf1; subst n1. inversion Hf2; subst n2.
    simpl in Hch. inversion Hch; subst f0 f1.
    destruct (zdep_children_inj id1 m1 c0 c1 e0 e1 id2 m2 d0 d1 F1 D1 C1 R0 R1 F2 D2 C2 Q0 Q1) as [X Y].
    congruence.
Qed.

Theorem zcore_wf : WF s1.
Proof.
  apply (swapped_wf s i H Hi _ _ (rebuiltz_find s i te) (goodnewz_level s i) M SP); change (swapped s i M) with s1.
  - (* arity *)
    intros id nd' E. rewrite zfind1 in E. rewrite Hk. simpl arity.
    destruct (zfind_cases id nd' E) as [[nd [E0 [D ->]]]|[[nd [c0 [c1 [e0 [e1 [E0 [D [Hc [-> [R0 R1]]]]]]]]]]|[E0 G]]].
    + rewrite relabel_children. pose proof (wf_arity s H id nd E0) as A. rewrite Hk in A. exact A.
    + reflexivity.
    + destruct G as [_ [_ [x [y [Gc _]]]]]. rewrite Gc. reflexivity.
  - exact zwf1_child.
  - (* zero-suppressed *)
    intros id nd' E. rewrite zfind1 in E. unfold reduced. rewrite zkind1, Hk.
    destruct (zfind_cases id nd' E) as [[nd [E0 [D ->]]]|[[nd [c0 [c1 [e0 [e1 [E0 [D [Hc [-> [R0 R1]]]]]]]]]]|[E0 G]]].
    + rewrite relabel_children. pose proof (wf_reduced s H id nd E0) as Hr. unfold reduced in Hr.
      rewrite Hk in Hr. exact Hr.
    + exists e0. split; [reflexivity|]. intros t Er. rewrite zterm_val1.
      apply (notE_term e0 t); [|exact Er]. apply (zdep_hi_notE id nd c0 c1 e0 E0 D Hc R0).
    + destruct G as [_ [_ [x [y [Gc [Gne _]]]]]]. rewrite Gc. exists x. split; [reflexivity|].
      intros t Er. rewrite zterm_val1. apply (notE_term x t Gne Er).
  - (* tags *)
    intros _ id nd' e E He. rewrite zfind1 in E.
    destruct (zfind_cases id nd' E) as [[nd [E0 [D ->]]]|[[nd [c0 [c1 [e0 [e1 [E0 [D [Hc [-> [R0 R1]]]]]]]]]]|[E0 G]]].
    + rewrite relabel_children in He. apply (zbdd_tag s H Hk id nd e E0 He).
    + simpl in He. destruct (zdep_lows id nd c0 c1 E0 D Hc) as [A [B [C F]]].
      destruct He as [<-|[<-|[]]].
      * apply (repz_props _ _ _ R0 A B).
      * apply (repz_props _ _ _ R1 C F).
    + destruct G as [_ [_ [x [y [Gc [_ [[_ [Tx _]] [_ [Ty _]]]]]]]]]. rewrite Gc in He.
      destruct He as [<-|[<-|[]]]; assumption.
  - exact zwf1_unique.
Qed.

End CoreZ.
