(** C16 — proofs about the name bookkeeping model (Mgr/Names.v). *)
From Coq Require Import String List NArith Bool Lia Arith FinFun.
From OxiVerif Require Import Mgr.Names.
Import ListNotations.
Local Open Scope string_scope.
Local Open Scope list_scope.
Arguments N.add : simpl never.
Arguments N.sub : simpl never.
Arguments N.mul : simpl never.
Arguments idx_remove : simpl never.
Arguments idx_insert : simpl never.

(** * small facts *)

Lemma empty_name_true s : is_empty_name s = true <-> s = "".
Proof. unfold is_empty_name. apply String.eqb_eq. Qed.

Lemma empty_name_false s : is_empty_name s = false <-> s <> "".
Proof. unfold is_empty_name. apply String.eqb_neq. Qed.

Lemma vnm_len_nat m : N.to_nat (vnm_len m) = length (names m).
Proof. unfold vnm_len. apply Nat2N.id. Qed.

(** ** association list = hash map *)

Lemma idx_get_some s idx v : idx_get s idx = Some v -> In (s, v) idx.
Proof.
  induction idx as [|[k w] r IH]; simpl; [discriminate|].
  destruct (String.eqb_spec k s) as [->|Hne].
  - intros [= ->]. now left.
  - intros H. right. auto.
Qed.

Lemma idx_get_none s idx : idx_get s idx = None <-> ~ In s (map fst idx).
Proof.
  induction idx as [|[k w] r IH]; simpl.
  - split; [intros _ []|reflexivity].
  - destruct (String.eqb_spec k s) as [->|Hne].
    + split; [discriminate|]. intros H. exfalso. apply H. now left.
    + rewrite IH. split.
      * intros H [E|I]; [now apply Hne|now apply H].
      * intros H I. apply H. now right.
Qed.

Lemma idx_get_in s idx v :
  NoDup (map fst idx) -> In (s, v) idx -> idx_get s idx = Some v.
Proof.
  induction idx as [|[k w] r IH]; simpl; [intros _ []|].
  intros ND [E|I].
  - inversion E; subst. now rewrite String.eqb_refl.
  - inversion ND as [|? ? Hn ND']; subst.
    destruct (String.eqb_spec k s) as [->|Hne].
    + exfalso. apply Hn. apply in_map_iff. now exists (s, v).
    + now apply IH.
Qed.

Lemma in_idx_remove s idx k v : In (k, v) (idx_remove s idx) <-> In (k, v) idx /\ k <> s.
Proof.
  unfold idx_remove. rewrite filter_In. simpl.
  rewrite negb_true_iff. now rewrite String.eqb_neq.
Qed.

Lemma nodup_idx_remove s idx : NoDup (map fst idx) -> NoDup (map fst (idx_remove s idx)).
Proof.
  induction idx as [|[k w] r IH]; [auto|].
  intros ND. simpl in ND. inversion ND as [|? ? Hn ND']; subst.
  change (idx_remove s ((k, w) :: r))
    with (if negb (String.eqb k s) then (k, w) :: idx_remove s r else idx_remove s r).
  destruct (negb (String.eqb k s)); [|auto].
  simpl. constructor; [|auto].
  intros I. apply Hn. apply in_map_iff in I. destruct I as [[k' v'] [E I]]. simpl in E. subst k'.
  apply in_idx_remove in I. apply in_map_iff. exists (k, v'). now split.
Qed.

(** ** vector update *)

Lemma set_nth_length i x l : length (set_nth i x l) = length l.
Proof. revert i. induction l as [|y r IH]; intros [|i]; simpl; auto. Qed.

Lemma nth_error_set_nth_eq i x l : (i < length l)%nat -> nth_error (set_nth i x l) i = Some x.
Proof.
  revert i. induction l as [|y r IH]; intros [|i]; simpl; try lia; auto.
  intros H. apply IH. lia.
Qed.

Lemma nth_error_set_nth_neq i j x l : i <> j -> nth_error (set_nth i x l) j = nth_error l j.
Proof.
  revert i j. induction l as [|y r IH]; intros [|i] [|j]; simpl; auto; try congruence.
  all: try (intros H; apply IH; congruence).
Qed.

Lemma nth_error_app_last {A} (l : list A) x j s :
  nth_error (l ++ [x]) j = Some s <->
  nth_error l j = Some s \/ (j = length l /\ x = s).
Proof.
  destruct (Nat.lt_ge_cases j (length l)) as [Hlt|Hge].
  - rewrite nth_error_app1 by assumption. split; [auto|]. intros [H|[E _]]; [assumption|lia].
  - rewrite nth_error_app2 by assumption.
    assert (Hnone : nth_error l j = None) by now apply nth_error_None.
    rewrite Hnone.
    destruct (j - length l)%nat as [|d] eqn:Ed; simpl.
    + split.
      * intros [= ->]. right. split; [lia|reflexivity].
      * intros [H|[_ ->]]; [discriminate|reflexivity].
    + split.
      * destruct d; discriminate.
      * intros [H|[E _]]; [discriminate|lia].
Qed.

Lemma nth_error_app_repeat (l : list string) k j s :
  s <> "" -> (nth_error (l ++ repeat "" k) j = Some s <-> nth_error l j = Some s).
Proof.
  intros Hs. destruct (Nat.lt_ge_cases j (length l)) as [Hlt|Hge].
  - now rewrite nth_error_app1.
  - rewrite nth_error_app2 by assumption.
    assert (Hnone : nth_error l j = None) by now apply nth_error_None.
    rewrite Hnone. split; [|discriminate].
    intros H. apply nth_error_In in H. apply repeat_spec in H. congruence.
Qed.

(** * the invariant *)

(** [index] is exactly the inverse of [names] restricted to non-empty names
    and has one entry per key. *)
Definition names_inv (m : vnm) : Prop :=
  (forall s v, In (s, v) (index m) <-> s <> "" /\ nth_error (names m) (N.to_nat v) = Some s)
  /\ NoDup (map fst (index m)).

Lemma names_inv_new : names_inv vnm_new.
Proof.
  split; simpl; [|constructor].
  intros s v. split; [intros []|]. intros [_ H]. destruct (N.to_nat v); discriminate.
Qed.

Lemma names_inv_add_unnamed m k : names_inv m -> names_inv (add_unnamed m k).
Proof.
  intros [H ND]. split; simpl; [|assumption].
  intros s v. rewrite H. split; intros [Hs Hn]; split; auto.
  - now apply nth_error_app_repeat.
  - now apply nth_error_app_repeat in Hn.
Qed.

(* push of an unnamed variable *)
Lemma names_inv_push_empty m : names_inv m -> names_inv (mk_vnm (names m ++ [""]) (index m)).
Proof.
  intros [H ND]. split; simpl; [|assumption].
  intros s v. rewrite H. rewrite nth_error_app_last. split.
  - intros [Hs Hn]. auto.
  - intros [Hs [Hn|[_ E]]]; [auto|congruence].
Qed.

(* push of a fresh name at v = len *)
Lemma names_inv_push_named m name v :
  names_inv m -> name <> "" -> idx_get name (index m) = None -> v = vnm_len m ->
  names_inv (mk_vnm (names m ++ [name]) (idx_insert name v (index m))).
Proof.
  intros [H ND] Hne Hnone ->. split; simpl.
  - intros s v. rewrite nth_error_app_last, H. split.
    + intros [E|[Hs Hn]].
      * inversion E; subst. split; [assumption|]. right. split; [apply vnm_len_nat|reflexivity].
      * auto.
    + intros [Hs [Hn|[E1 E2]]]; [auto|].
      left. subst s. f_equal. rewrite <- vnm_len_nat in E1. now apply N2Nat.inj in E1.
  - constructor; [|assumption]. now apply idx_get_none.
Qed.

(** ** add_named *)

(* what a caller can rely on after add_named, successful or rejected; [lo0] is the number
   of variables before the call, which the loop carries along *)
Definition add_named_post (m : vnm) (lo0 : N) (l : list string) (m' : vnm) (r : res) : Prop :=
  match r with
  | ROk lo hi =>
    lo = lo0 /\ hi = vnm_len m' /\ names m' = names m ++ l
  | RErr name present lo hi =>
    lo = lo0 /\ hi = vnm_len m' /\
    (exists pre post, l = pre ++ name :: post /\ names m' = names m ++ pre) /\
    name <> "" /\ var_name m' present = Some name
  | _ => False
  end.

Lemma add_named_loop_spec l : forall m lo0 v,
  names_inv m -> v = vnm_len m ->
  names_inv (fst (add_named_loop m lo0 v l)) /\
  add_named_post m lo0 l (fst (add_named_loop m lo0 v l)) (snd (add_named_loop m lo0 v l)).
Proof.
  induction l as [|name r IH]; intros m lo0 v Hinv Hv; simpl.
  - split; [assumption|]. now rewrite app_nil_r.
  - assert (Hpush : forall x idx', x = name -> names_inv (mk_vnm (names m ++ [x]) idx') ->
              names_inv (fst (add_named_loop (mk_vnm (names m ++ [x]) idx') lo0 (N.succ v) r)) /\
              add_named_post m lo0 (name :: r)
                (fst (add_named_loop (mk_vnm (names m ++ [x]) idx') lo0 (N.succ v) r))
                (snd (add_named_loop (mk_vnm (names m ++ [x]) idx') lo0 (N.succ v) r))).
    { intros x idx' -> Hinv1.
      destruct (IH (mk_vnm (names m ++ [name]) idx') lo0 (N.succ v) Hinv1) as [Hi Hr].
      { subst v. unfold vnm_len. simpl. rewrite app_length. simpl. lia. }
      split; [exact Hi|]. unfold add_named_post in *. simpl names in Hr.
      destruct (snd (add_named_loop _ lo0 (N.succ v) r)); auto.
      - destruct Hr as (-> & -> & Hn). repeat split; auto. now rewrite Hn, <- app_assoc.
      - destruct Hr as (-> & -> & (pre & post & -> & Hn) & Hne & Hp). repeat split; auto.
        exists (name :: pre), post. split; [reflexivity|]. now rewrite Hn, <- app_assoc. }
    destruct (is_empty_name name) eqn:Ee.
    + apply empty_name_true in Ee. apply (Hpush "" (index m) (eq_sym Ee)).
      now apply names_inv_push_empty.
    + apply empty_name_false in Ee.
      destruct (idx_get name (index m)) as [present|] eqn:Eg.
      * simpl. split; [assumption|]. repeat split; auto.
        -- exists [], r. split; [reflexivity|]. now rewrite app_nil_r.
        -- apply idx_get_some in Eg. apply (proj1 Hinv) in Eg. apply Eg.
      * apply (Hpush name _ eq_refl). now apply names_inv_push_named.
Qed.

Lemma add_named_spec m l :
  names_inv m ->
  names_inv (fst (add_named m l)) /\
  add_named_post m (vnm_len m) l (fst (add_named m l)) (snd (add_named m l)).
Proof. intros Hinv. now apply add_named_loop_spec. Qed.

(** ** get_or_add *)

Lemma names_inv_get_or_add m s : names_inv m -> names_inv (fst (get_or_add m s)).
Proof.
  intros Hinv. unfold get_or_add.
  destruct (is_empty_name s) eqn:Ee; simpl.
  - now apply names_inv_push_empty.
  - apply empty_name_false in Ee.
    destruct (idx_get s (index m)) eqn:Eg; simpl; [assumption|].
    now apply names_inv_push_named.
Qed.

(** ** set_var_name *)

Definition set_name_post (m : vnm) (var : N) (name : string) (m' : vnm) (r : res) : Prop :=
  match r with
  | RUnit =>                                   (* accepted *)
    var_name m' var = Some name /\
    length (names m') = length (names m) /\
    (forall w, w <> var -> var_name m' w = var_name m w)
  | RErr n present lo hi =>                    (* rejected: nothing changed *)
    m' = m /\ n = name /\ name <> "" /\ present <> var /\
    var_name m present = Some name /\ lo = vnm_len m /\ hi = vnm_len m
  | RPanic =>                                  (* var out of range: nothing changed *)
    m' = m /\ var_name m var = None
  | _ => False
  end.

(** [idx'] is given by its members, so that the lemma serves clearing and both shapes of
    the index after renaming *)
Lemma names_inv_set_slot m var prev x idx' :
  names_inv m -> nth_error (names m) (N.to_nat var) = Some prev -> NoDup (map fst idx') ->
  (forall s v, In (s, v) idx' <->
     (x <> "" /\ s = x /\ v = var) \/ (In (s, v) (index m) /\ s <> prev)) ->
  let m' := mk_vnm (set_nth (N.to_nat var) x (names m)) idx' in
  names_inv m' /\ set_name_post m var x m' RUnit.
Proof.
  intros [H ND] En ND' Hmem.
  assert (Hlt : (N.to_nat var < length (names m))%nat) by (apply nth_error_Some; congruence).
  assert (Hne : forall w, w <> var -> N.to_nat var <> N.to_nat w).
  { intros w Hw E. apply N2Nat.inj in E. congruence. }
  split; [split; [|exact ND']|]; simpl.
  - intros s v. rewrite Hmem. destruct (N.eq_dec v var) as [->|Hv].
    + rewrite nth_error_set_nth_eq by assumption. split.
      * intros [(Hx & -> & _)|[I Hsp]]; [now split|]. apply H in I. destruct I as [_ I]. congruence.
      * intros [Hs E]. left. inversion E; subst. auto.
    + rewrite nth_error_set_nth_neq by (apply Hne, Hv). split.
      * intros [(_ & _ & E)|[I _]]; [congruence | now apply H].
      * intros [Hs Hn]. right. split; [apply H; now split|].
        (* two variables with the name [prev] would be two entries for one key *)
        intros ->. apply Hv.
        assert (I1 : In (prev, var) (index m)) by (apply H; now split).
        assert (I2 : In (prev, v) (index m)) by (apply H; now split).
        apply (idx_get_in _ _ _ ND) in I1. apply (idx_get_in _ _ _ ND) in I2. congruence.
  - unfold var_name. simpl. split; [now apply nth_error_set_nth_eq|]. split; [apply set_nth_length|].
    intros w Hw. apply nth_error_set_nth_neq, Hne, Hw.
Qed.

Lemma set_var_name_spec m var name :
  names_inv m ->
  names_inv (fst (set_var_name m var name)) /\
  set_name_post m var name (fst (set_var_name m var name)) (snd (set_var_name m var name)).
Proof.
  intros Hinv. pose proof Hinv as [H ND]. unfold set_var_name.
  destruct (is_empty_name name) eqn:Ee.
  - (* clear *)
    apply empty_name_true in Ee. subst name.
    destruct (nth_error (names m) (N.to_nat var)) as [prev|] eqn:En; cbn [fst snd].
    2:{ split; [exact Hinv|]. now split. }
    apply (names_inv_set_slot m var prev "" _ Hinv En); [now apply nodup_idx_remove|].
    intros s v. rewrite in_idx_remove. split; [auto | intros [(F & _)|I]; [congruence | exact I]].
  - apply empty_name_false in Ee.
    destruct (idx_get name (index m)) as [present|] eqn:Eg.
    + (* occupied *)
      assert (Hp : In (name, present) (index m)) by now apply idx_get_some.
      apply H in Hp. destruct Hp as [_ Hp].
      destruct (N.eqb_spec present var) as [->|Hne]; cbn [fst snd]; unfold set_name_post, var_name.
      * split; [exact Hinv|]. split; [assumption|]. split; [reflexivity|]. auto.
      * split; [exact Hinv|]. repeat split; auto.
    + (* vacant *)
      destruct (nth_error (names m) (N.to_nat var)) as [prev|] eqn:En; cbn [fst snd].
      2:{ split; [exact Hinv|]. now split. }
      assert (Hfresh : forall v, ~ In (name, v) (index m)).
      { intros v I. apply idx_get_none in Eg. apply Eg. apply in_map_iff. now exists (name, v). }
      assert (Hpn : prev <> name).
      { intros ->. apply (Hfresh var). apply H. now split. }
      apply (names_inv_set_slot m var prev name _ Hinv En).
      * assert (ND1 : NoDup (map fst (idx_insert name var (index m)))).
        { unfold idx_insert. simpl. constructor; [now apply idx_get_none|assumption]. }
        destruct (is_empty_name prev); [assumption|now apply nodup_idx_remove].
      * (* both shapes of the new index have the same members *)
        intros s v. destruct (is_empty_name prev) eqn:Ep.
        -- apply empty_name_true in Ep. unfold idx_insert. simpl. split.
           ++ intros [E|I]; [left; inversion E; subst; auto|]. right. split; [assumption|].
              apply H in I. destruct I as [Hs _]. congruence.
           ++ intros [(_ & -> & ->)|[I _]]; [now left|now right].
        -- rewrite in_idx_remove. unfold idx_insert. simpl. split.
           ++ intros [[E|I] Hs]; [left; inversion E; subst; auto|right; now split].
           ++ intros [(_ & -> & ->)|[I Hs]]; split; auto.
Qed.

(** ** the calls that build a map argument *)

Lemma names_inv_mstep m o : names_inv m -> names_inv (fst (mstep m o)).
Proof.
  intros Hinv. destruct o; simpl.
  - now apply names_inv_add_unnamed.
  - now apply add_named_spec.
  - now apply set_var_name_spec.
  - now apply names_inv_get_or_add.
Qed.

Lemma names_inv_mrun os : forall m, names_inv m -> names_inv (fst (mrun m os)).
Proof.
  induction os as [|o r IH]; intros m Hinv; simpl; [assumption|].
  pose proof (names_inv_mstep m o Hinv) as H1.
  destruct (mstep m o) as [m1 x]. simpl in H1.
  specialize (IH m1 H1). destruct (mrun m1 r) as [m2 xs]. exact IH.
Qed.

(** * the manager *)

(** as many levels as variables (and as many entries of the var<->level
    map), and the name map is consistent *)
Definition mgr_inv (g : mgr) : Prop :=
  names_inv (nm g) /\ nlevels g = vnm_len (nm g) /\ nvl g = vnm_len (nm g).

Lemma mgr_inv_new : mgr_inv mgr_new.
Proof. split; [apply names_inv_new|]. now split. Qed.

Lemma vnm_len_add_unnamed m k : vnm_len (add_unnamed m k) = N.add (vnm_len m) k.
Proof. unfold vnm_len, add_unnamed. simpl. rewrite app_length, repeat_length. lia. Qed.

Lemma add_named_len_mono m l : names_inv m -> N.le (vnm_len m) (vnm_len (fst (add_named m l))).
Proof.
  intros Hinv. destruct (add_named_spec m l Hinv) as [_ Hp].
  unfold add_named_post in Hp. unfold vnm_len.
  destruct (snd (add_named m l)); try contradiction.
  - destruct Hp as (_ & _ & ->). rewrite app_length. lia.
  - destruct Hp as (_ & _ & (pre & post & _ & ->) & _). rewrite app_length. lia.
Qed.

Lemma mgr_inv_add_vars g k : mgr_inv g -> mgr_inv (fst (m_add_vars g k)).
Proof.
  intros (Hn & Hl & Hv). unfold m_add_vars. simpl. split; [now apply names_inv_add_unnamed|].
  simpl. rewrite vnm_len_add_unnamed. split; congruence.
Qed.

Lemma mgr_inv_add_named g l : mgr_inv g -> mgr_inv (fst (m_add_named_vars g l)).
Proof.
  intros (Hn & Hl & Hv). unfold m_add_named_vars.
  pose proof (add_named_spec (nm g) l Hn) as [Hi _].
  pose proof (add_named_len_mono (nm g) l Hn) as Hm.
  destruct (add_named (nm g) l) as [m1 r]. simpl in *.
  split; [assumption|]. simpl. split; [reflexivity|]. lia.
Qed.

Lemma vnm_is_empty_len m : vnm_is_empty m = true -> vnm_len m = 0%N.
Proof. unfold vnm_is_empty, vnm_len. destruct (names m); [reflexivity|discriminate]. Qed.

Lemma mgr_inv_from_map g map :
  mgr_inv g -> names_inv map -> mgr_inv (fst (m_add_named_vars_from_map g map)).
Proof.
  intros Hg Hmap. unfold m_add_named_vars_from_map.
  destruct (vnm_is_empty (nm g)) eqn:Ee.
  - destruct Hg as (Hn & Hl & Hv). apply vnm_is_empty_len in Ee. simpl.
    split; [assumption|]. simpl. split; [reflexivity|]. lia.
  - now apply mgr_inv_add_named.
Qed.

Lemma mgr_inv_set_name g v s : mgr_inv g -> mgr_inv (fst (m_set_var_name g v s)).
Proof.
  intros (Hn & Hl & Hv). unfold m_set_var_name.
  pose proof (set_var_name_spec (nm g) v s Hn) as [Hi Hp].
  destruct (set_var_name (nm g) v s) as [m1 r]. simpl in *.
  split; [assumption|]. simpl.
  assert (E : vnm_len m1 = vnm_len (nm g)).
  { unfold set_name_post in Hp. unfold vnm_len. destruct r; try contradiction.
    - destruct Hp as (_ & -> & _). reflexivity.
    - destruct Hp as (-> & _). reflexivity.
    - destruct Hp as (-> & _). reflexivity. }
  rewrite E. now split.
Qed.

Lemma fst_step g o :
  fst (step g o) =
  match o with
  | OAddVars k => fst (m_add_vars g k)
  | OAddNamed l => fst (m_add_named_vars g l)
  | OSetName v s => fst (m_set_var_name g v s)
  | OFromMap b => fst (m_add_named_vars_from_map g (fst (mrun vnm_new b)))
  end.
Proof.
  destruct o as [k|l|v s|b]; unfold step.
  - now destruct (m_add_vars g k).
  - now destruct (m_add_named_vars g l).
  - now destruct (m_set_var_name g v s).
  - destruct (mrun vnm_new b) as [map rs]. simpl fst at 2.
    now destruct (m_add_named_vars_from_map g map).
Qed.

Theorem mgr_inv_step g o : mgr_inv g -> mgr_inv (fst (step g o)).
Proof.
  intros Hg. rewrite fst_step. destruct o as [k|l|v s|b].
  - now apply mgr_inv_add_vars.
  - now apply mgr_inv_add_named.
  - now apply mgr_inv_set_name.
  - apply mgr_inv_from_map; [assumption|]. apply names_inv_mrun, names_inv_new.
Qed.

(** every call sequence (accepted and rejected calls alike) *)
Theorem mgr_inv_run os : forall g, mgr_inv g -> mgr_inv (run g os).
Proof.
  unfold run. induction os as [|o r IH]; intros g Hg; simpl; [assumption|].
  apply IH. now apply mgr_inv_step.
Qed.

Theorem mgr_inv_reachable os : mgr_inv (run mgr_new os).
Proof. apply mgr_inv_run, mgr_inv_new. Qed.

(** * consequences, in the words of the property *)

(** name_to_var (var_name v) = Some v for a named variable v *)
Theorem name_to_var_var_name m v s :
  names_inv m -> var_name m v = Some s -> s <> "" -> name_to_var m s = Some v.
Proof.
  intros [H ND] Hv Hs. unfold name_to_var. apply idx_get_in; [assumption|].
  apply H. now split.
Qed.

(** var_name (name_to_var s) = s, and only named variables are found *)
Theorem var_name_name_to_var m s v :
  names_inv m -> name_to_var m s = Some v -> var_name m v = Some s /\ s <> "".
Proof.
  intros [H ND] Hg. unfold name_to_var in Hg. apply idx_get_some in Hg. apply H in Hg. tauto.
Qed.

Theorem name_to_var_empty m : names_inv m -> name_to_var m "" = None.
Proof.
  intros Hinv. destruct (name_to_var m "") eqn:E; [|reflexivity].
  apply (var_name_name_to_var m "" n Hinv) in E. now destruct E.
Qed.

(** an unused name is not found *)
Theorem name_to_var_none m s :
  names_inv m -> name_to_var m s = None -> forall v, var_name m v <> Some s \/ s = "".
Proof.
  intros Hinv Hn v. destruct (string_dec s "") as [->|Hs]; [now right|]. left.
  intros Hv. rewrite (name_to_var_var_name m v s Hinv Hv Hs) in Hn. discriminate.
Qed.

(** ** num_named_vars counts the named variables *)

Definition named (m : vnm) (i : nat) : bool :=
  match nth_error (names m) i with Some s => negb (is_empty_name s) | None => false end.

(* the named variables, in increasing order *)
Definition named_vars (m : vnm) : list nat := filter (named m) (seq 0 (length (names m))).

Lemma nodup_map_snd (idx : list (string * N)) :
  NoDup (map fst idx) ->
  (forall s s' v, In (s, v) idx -> In (s', v) idx -> s = s') ->
  NoDup (map snd idx).
Proof.
  induction idx as [|[s v] r IH]; simpl; intros ND F; [constructor|].
  inversion ND as [|? ? Hn ND']; subst. constructor.
  - intros I. apply in_map_iff in I. destruct I as [[s' v'] [E I]]. simpl in E. subst v'.
    apply Hn. assert (s = s') by (apply (F s s' v); [now left|now right]). subst s'.
    apply in_map_iff. now exists (s, v).
  - apply IH; [assumption|]. intros a b w I1 I2. apply (F a b w); now right.
Qed.

(** the named variables are exactly the positions of [names] that hold a
    non-empty name *)
Lemma named_vars_spec m i :
  In i (named_vars m) <-> exists s, nth_error (names m) i = Some s /\ s <> "".
Proof.
  unfold named_vars, named. rewrite filter_In, in_seq. split.
  - intros [_ Hn]. destruct (nth_error (names m) i) as [s|]; [|discriminate].
    exists s. split; [reflexivity|]. now apply empty_name_false, negb_true_iff.
  - intros [s [E Hs]]. split.
    + split; [lia|]. simpl. apply nth_error_Some. congruence.
    + rewrite E. now apply negb_true_iff, empty_name_false.
Qed.

Theorem named_count_correct m :
  names_inv m -> N.to_nat (named_count m) = length (named_vars m).
Proof.
  intros [H ND]. unfold named_count. rewrite Nat2N.id.
  rewrite <- (map_length (fun p => N.to_nat (snd p)) (index m)).
  assert (ND1 : NoDup (map (fun p => N.to_nat (snd p)) (index m))).
  { rewrite <- (map_map snd N.to_nat). apply FinFun.Injective_map_NoDup.
    - intros a b. apply N2Nat.inj.
    - apply nodup_map_snd; [assumption|]. intros s s' v I1 I2.
      apply H in I1. apply H in I2. destruct I1 as [_ E1], I2 as [_ E2]. congruence. }
  assert (ND2 : NoDup (named_vars m)) by (apply NoDup_filter, seq_NoDup).
  assert (Hiff : forall i, In i (map (fun p => N.to_nat (snd p)) (index m)) <-> In i (named_vars m)).
  { intros i. rewrite named_vars_spec, in_map_iff. split.
    - intros [[s v] [E I]]. simpl in E. subst i. apply H in I. destruct I as [Hs Hn]. now exists s.
    - intros [s [E Hs]]. exists (s, N.of_nat i). simpl. split; [apply Nat2N.id|].
      apply H. split; [assumption|]. now rewrite Nat2N.id. }
  apply Nat.le_antisymm; apply NoDup_incl_length; try assumption; intros i; apply Hiff.
Qed.

(** ** manager level: the property's sentence *)

Theorem mgr_consistent g :
  mgr_inv g ->
  (* as many levels as variables, = number of name slots *)
  num_vars g = num_levels g /\ num_levels g = vnm_len (nm g) /\
  (* var_name is defined exactly for v < num_vars *)
  (forall v, (exists s, m_var_name g v = Some s) <-> N.lt v (num_vars g)) /\
  (* name_to_var and var_name are mutually inverse on the named variables *)
  (forall v s, m_var_name g v = Some s -> s <> "" -> m_name_to_var g s = Some v) /\
  (forall s v, m_name_to_var g s = Some v -> m_var_name g v = Some s /\ s <> "" /\ N.lt v (num_vars g)) /\
  m_name_to_var g "" = None /\
  (* num_named_vars counts them *)
  N.to_nat (num_named_vars g) = length (named_vars (nm g)).
Proof.
  intros (Hn & Hl & Hv). unfold num_vars, num_levels, m_var_name, m_name_to_var, num_named_vars.
  assert (Hdef : forall v, (exists s, var_name (nm g) v = Some s) <-> N.lt v (nlevels g)).
  { intros v. unfold var_name. rewrite Hl. unfold vnm_len. split.
    - intros [s E]. assert (N.to_nat v < length (names (nm g)))%nat by (apply nth_error_Some; congruence). lia.
    - intros L. destruct (nth_error (names (nm g)) (N.to_nat v)) as [s|] eqn:E; [now exists s|].
      apply nth_error_None in E. lia. }
  repeat split; auto.
  - now apply Hdef.
  - now apply Hdef.
  - intros v s. now apply name_to_var_var_name.
  - now apply (var_name_name_to_var (nm g) s v).
  - now apply (var_name_name_to_var (nm g) s v).
  - apply Hdef. exists s. now apply (var_name_name_to_var (nm g) s v).
  - now apply name_to_var_empty.
  - now apply named_count_correct.
Qed.

(** what the calls report (for a consistent manager) *)

Theorem add_vars_result g k :
  mgr_inv g ->
  snd (m_add_vars g k) = ROk (num_vars g) (N.add (num_vars g) k) /\
  num_vars (fst (m_add_vars g k)) = N.add (num_vars g) k /\
  names (nm (fst (m_add_vars g k))) = names (nm g) ++ repeat "" (N.to_nat k).
Proof. intros _. unfold m_add_vars, num_vars, num_levels. simpl. auto. Qed.

(** add_named_vars: Ok(range) = all names added as the variables of the
    range; Err: the prefix before the first duplicate was added
    ([added_vars]), the rejected name is the next one, and [present_var] is
    the variable that carries it (possibly one of the variables just added) *)
Theorem add_named_vars_result g l :
  mgr_inv g ->
  let g' := fst (m_add_named_vars g l) in
  match snd (m_add_named_vars g l) with
  | ROk lo hi =>
    lo = num_vars g /\ hi = num_vars g' /\ names (nm g') = names (nm g) ++ l
  | RErr name present lo hi =>
    lo = num_vars g /\ hi = num_vars g' /\
    (exists pre post, l = pre ++ name :: post /\ names (nm g') = names (nm g) ++ pre) /\
    name <> "" /\ m_var_name g' present = Some name /\ m_name_to_var g' name = Some present
  | _ => False
  end.
Proof.
  intros (Hn & Hl & Hv). unfold m_add_named_vars, num_vars, num_levels, m_var_name, m_name_to_var.
  pose proof (add_named_spec (nm g) l Hn) as [Hi Hp].
  destruct (add_named (nm g) l) as [m1 r]. simpl in *. unfold add_named_post in Hp.
  destruct r; try contradiction.
  - destruct Hp as (-> & -> & E). auto.
  - destruct Hp as (-> & -> & Hex & Hne & Hp). repeat split; auto.
    now apply name_to_var_var_name.
Qed.

(** set_var_name: accepted -> the variable carries the name, nothing else
    changed; rejected -> nothing changed and [present_var] is another
    variable that carries the name; out of range -> nothing changed *)
Theorem set_var_name_result g v s :
  mgr_inv g ->
  let g' := fst (m_set_var_name g v s) in
  match snd (m_set_var_name g v s) with
  | RUnit =>
    m_var_name g' v = Some s /\ num_vars g' = num_vars g /\
    (forall w, w <> v -> m_var_name g' w = m_var_name g w)
  | RErr name present lo hi =>
    g' = g /\ name = s /\ s <> "" /\ present <> v /\ m_var_name g present = Some s /\
    lo = num_vars g /\ hi = num_vars g
  | RPanic => g' = g /\ ~ N.lt v (num_vars g)
  | _ => False
  end.
Proof.
  intros (Hn & Hl & Hv). unfold m_set_var_name, num_vars, num_levels, m_var_name.
  pose proof (set_var_name_spec (nm g) v s Hn) as [Hi Hp].
  destruct (set_var_name (nm g) v s) as [m1 r]. simpl in *. unfold set_name_post in Hp.
  destruct r; try contradiction.
  - destruct Hp as (H1 & H2 & H3). auto.
  - destruct Hp as (-> & -> & H1 & H2 & H3 & -> & ->). repeat split; auto. now destruct g.
  - destruct Hp as (-> & Hnone). split; [now destruct g|].
    unfold var_name in Hnone. apply nth_error_None in Hnone. rewrite Hl. unfold vnm_len. lia.
Qed.

(** the same name again is a no-op *)
Theorem set_var_name_same m v s :
  names_inv m -> var_name m v = Some s -> set_var_name m v s = (m, RUnit) \/
  (s = "" /\ snd (set_var_name m v s) = RUnit).
Proof.
  intros Hinv Hv. destruct (string_dec s "") as [->|Hs].
  - right. split; [reflexivity|]. unfold set_var_name. simpl. unfold var_name in Hv. now rewrite Hv.
  - left. unfold set_var_name. apply empty_name_false in Hs. rewrite Hs.
    apply empty_name_false in Hs.
    pose proof (name_to_var_var_name m v s Hinv Hv Hs) as E. unfold name_to_var in E. rewrite E.
    now rewrite N.eqb_refl.
Qed.

(** a rename releases the old name *)
Theorem rename_releases m v old new :
  names_inv m -> var_name m v = Some old -> old <> "" -> new <> "" -> new <> old ->
  name_to_var m new = None ->
  let m' := fst (set_var_name m v new) in
  snd (set_var_name m v new) = RUnit /\
  name_to_var m' old = None /\ name_to_var m' new = Some v /\
  named_count m' = named_count m.
Proof.
  intros Hinv Hv Ho Hn Hno Hfree.
  pose proof (set_var_name_spec m v new Hinv) as [Hi Hp].
  assert (Hr : snd (set_var_name m v new) = RUnit).
  { unfold set_var_name. apply empty_name_false in Hn. rewrite Hn.
    unfold name_to_var in Hfree. rewrite Hfree. unfold var_name in Hv. now rewrite Hv. }
  rewrite Hr in Hp. unfold set_name_post in Hp. destruct Hp as (H1 & H2 & H3).
  split; [assumption|]. split; [|split].
  - destruct (name_to_var (fst (set_var_name m v new)) old) as [w|] eqn:E; [|reflexivity].
    exfalso. apply (var_name_name_to_var _ _ _ Hi) in E. destruct E as [E _].
    destruct (N.eq_dec w v) as [->|Hw].
    + rewrite H1 in E. congruence.
    + rewrite (H3 w Hw) in E.
      pose proof (name_to_var_var_name m v old Hinv Hv Ho) as A.
      pose proof (name_to_var_var_name m w old Hinv E Ho) as B. congruence.
  - now apply name_to_var_var_name.
  - (* both count the named variables, which are the same positions *)
    apply N2Nat.inj. rewrite !named_count_correct by assumption.
    unfold named_vars. rewrite H2. f_equal. apply filter_ext.
    intros i. unfold named. destruct (Nat.eq_dec i (N.to_nat v)) as [->|Hi'].
    + unfold var_name in H1, Hv. rewrite H1, Hv.
      apply empty_name_false in Ho. apply empty_name_false in Hn. now rewrite Ho, Hn.
    + specialize (H3 (N.of_nat i)). unfold var_name in H3. rewrite Nat2N.id in H3.
      rewrite H3; [reflexivity|]. intros <-. now rewrite Nat2N.id in Hi'.
Qed.

(** * adding variables does not change what a handle denotes *)

(** The calls never remove or renumber a variable ... *)
Lemma num_vars_mono_add_named g l :
  mgr_inv g -> N.le (num_vars g) (num_vars (fst (m_add_named_vars g l))).
Proof.
  intros (Hn & Hl & Hv). unfold num_vars, num_levels, m_add_named_vars.
  pose proof (add_named_len_mono (nm g) l Hn) as Hm.
  destruct (add_named (nm g) l) as [m1 r]. simpl in *. lia.
Qed.

Theorem num_vars_mono_step g o : mgr_inv g -> N.le (num_vars g) (num_vars (fst (step g o))).
Proof.
  intros Hg. rewrite fst_step. destruct o as [k|l|v s|b].
  - unfold num_vars, num_levels, m_add_vars. simpl. lia.
  - now apply num_vars_mono_add_named.
  - unfold num_vars, num_levels, m_set_var_name. destruct (set_var_name (nm g) v s). simpl. lia.
  - unfold m_add_named_vars_from_map. destruct (vnm_is_empty (nm g)) eqn:Ee.
    + destruct Hg as (Hn & Hl & Hv). apply vnm_is_empty_len in Ee.
      unfold num_vars, num_levels. simpl. lia.
    + now apply num_vars_mono_add_named.
Qed.

Theorem num_vars_mono_run os : forall g, mgr_inv g -> N.le (num_vars g) (num_vars (run g os)).
Proof.
  unfold run. induction os as [|o r IH]; intros g Hg; simpl; [lia|].
  pose proof (num_vars_mono_step g o Hg). pose proof (IH _ (mgr_inv_step g o Hg)). lia.
Qed.

(** ... and the value of a diagram depends only on the variables it
    mentions. *)
Lemma eval2_agree {T} (cpl : T -> T) n (d : dd2 T) e e' :
  below2 n d = true -> (forall v, N.lt v n -> e v = e' v) -> eval2 cpl e d = eval2 cpl e' d.
Proof.
  intros Hb Ha. induction d as [t|v chi clo hi IHhi lo IHlo]; simpl in *; [reflexivity|].
  apply andb_prop in Hb. destruct Hb as [Hb Hlo]. apply andb_prop in Hb. destruct Hb as [Hv Hhi].
  apply N.ltb_lt in Hv. rewrite <- (Ha v Hv), (IHhi Hhi), (IHlo Hlo). reflexivity.
Qed.

Lemma eval3_agree {T} n (d : dd3 T) e e' :
  below3 n d = true -> (forall v, N.lt v n -> e v = e' v) -> eval3 e d = eval3 e' d.
Proof.
  intros Hb Ha. induction d as [t|v ct IHt cu IHu cf IHf]; simpl in *; [reflexivity|].
  apply andb_prop in Hb. destruct Hb as [Hb Hf]. apply andb_prop in Hb. destruct Hb as [Hb Hu].
  apply andb_prop in Hb. destruct Hb as [Hv Ht].
  apply N.ltb_lt in Hv. rewrite <- (Ha v Hv), (IHt Ht), (IHu Hu), (IHf Hf). reflexivity.
Qed.

Lemma below2_mono {T} n n' (d : dd2 T) : N.le n n' -> below2 n d = true -> below2 n' d = true.
Proof.
  intros Hle. induction d as [t|v chi clo hi IHhi lo IHlo]; simpl; [auto|].
  intros Hb. apply andb_prop in Hb. destruct Hb as [Hb Hlo]. apply andb_prop in Hb. destruct Hb as [Hv Hhi].
  rewrite (IHhi Hhi), (IHlo Hlo). apply N.ltb_lt in Hv.
  assert (E : N.ltb v n' = true) by (apply N.ltb_lt; lia). now rewrite E.
Qed.

Lemma below3_mono {T} n n' (d : dd3 T) : N.le n n' -> below3 n d = true -> below3 n' d = true.
Proof.
  intros Hle. induction d as [t|v ct IHt cu IHu cf IHf]; simpl; [auto|].
  intros Hb. apply andb_prop in Hb. destruct Hb as [Hb Hf]. apply andb_prop in Hb. destruct Hb as [Hb Hu].
  apply andb_prop in Hb. destruct Hb as [Hv Ht].
  rewrite (IHt Ht), (IHu Hu), (IHf Hf). apply N.ltb_lt in Hv.
  assert (E : N.ltb v n' = true) by (apply N.ltb_lt; lia). now rewrite E.
Qed.

(** BDD / BCDD / MTBDD: a diagram over the variables of [g] keeps its value
    under every assignment of the variables of [run g os] that extends the
    old assignment, whatever the new variables are set to, and it stays a
    diagram over the manager's variables. *)
Theorem add_vars_sem2 {T} (cpl : T -> T) g os (d : dd2 T) e e' :
  mgr_inv g -> below2 (num_vars g) d = true ->
  (forall v, N.lt v (num_vars g) -> e' v = e v) ->
  eval2 cpl e' d = eval2 cpl e d /\ below2 (num_vars (run g os)) d = true.
Proof.
  intros Hg Hb Ha. split.
  - now apply (eval2_agree cpl (num_vars g)).
  - apply (below2_mono (num_vars g)); [now apply num_vars_mono_run|assumption].
Qed.

(** TDD *)
Theorem add_vars_sem3 {T} g os (d : dd3 T) e e' :
  mgr_inv g -> below3 (num_vars g) d = true ->
  (forall v, N.lt v (num_vars g) -> e' v = e v) ->
  eval3 e' d = eval3 e d /\ below3 (num_vars (run g os)) d = true.
Proof.
  intros Hg Hb Ha. split.
  - now apply (eval3_agree (num_vars g)).
  - apply (below3_mono (num_vars g)); [now apply num_vars_mono_run|assumption].
Qed.

(** * a reachable, non-trivial state *)

Definition ex_ops : list op :=
  [ OAddNamed ["a"; ""; "b"];              (* vars 0 1 2 *)
    OAddVars 1;                            (* var 3 *)
    OSetName 0 "c";                        (* rename: releases "a" *)
    OAddNamed ["a"; "b"; "d"];             (* "a" added as var 4, "b" rejected *)
    OSetName 3 "c";                        (* rejected, var 0 carries "c" *)
    OSetName 2 "";                         (* clear *)
    OFromMap [MAddNamed ["e"]; MSetName 0 "f"] ].   (* var 5 = "f" *)

Example ex_state :
  run mgr_new ex_ops =
  mk_mgr (mk_vnm ["c"; ""; ""; ""; "a"; "f"] [("f", 5%N); ("a", 4%N); ("c", 0%N)]) 6 6.
Proof. vm_compute. reflexivity. Qed.

Example ex_rejected :
  snd (step (run mgr_new (firstn 3 ex_ops)) (OAddNamed ["a"; "b"; "d"])) = (RErr "b" 2 4 5, []).
Proof. vm_compute. reflexivity. Qed.

Example ex_consistent :
  let g := run mgr_new ex_ops in
  num_vars g = 6%N /\ num_named_vars g = 3%N /\ named_vars (nm g) = [0; 4; 5]%nat /\
  m_name_to_var g "b" = None /\ m_name_to_var g "a" = Some 4%N.
Proof. vm_compute. repeat split. Qed.
