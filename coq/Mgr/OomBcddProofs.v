(** * Out-of-memory behaviour of the BCDD apply algorithms (Mgr/OomBcdd.v), part 1

    Facts that need no invariant (every table, cache, fuel, capacity, recursor,
    operand order): [capply_*_sim] - when the bounded algorithm returns
    [GOk s' c' r] the unbounded algorithm of DD/ApplyBcdd.v returns literally
    [Some (s', c', r)] and at most [cap] nodes are stored unless nothing was
    inserted; when it returns [GOom s' c'] no node has disappeared and the store
    is full; when the unbounded algorithm returns a table that fits, the bounded
    one returns exactly that result.  The invariant-dependent part is in
    Mgr/OomBcddSafe.v. *)

From Coq Require Import List NArith PArith Bool Arith Lia FMapPositive.
From OxiVerif Require Import DD.Table DD.TableProofs DD.Sem DD.Build DD.BuildProofs
  DD.Apply DD.ApplyBcdd DD.ApplyBcddProofs DD.ApplyBcddIte Mgr.Oom Mgr.OomProofs.
From OxiVerif Require Import Mgr.OomGen Mgr.OomGenProofs Mgr.OomBcdd.
Import ListNotations.

(** the kinds with static terminals have no second resource *)
Definition no_m2 : snap -> nat := fun _ => 0.
Lemma no_m2_terms : forall s s' : snap, s_terms s' = s_terms s -> no_m2 s' = no_m2 s.
Proof. reflexivity. Qed.

(** ** One budget

    [sim] and [res_safe] for the kinds with static terminals, in the terms of
    the C14 statements.  [F] is the kind's description of the state after a
    failure (it adds what "extension" means for the owner of a handle). *)
Section OneBudget.
Variables C R : Type.
Variable Inv : snap -> C -> Prop.
Variable ext : snap -> snap -> Prop.
Variable Q : snap -> R -> Prop.

Definition failed1 (cap : nat) (s s' : snap) (c' : C) : Prop :=
  Inv s' c' /\ ext s s' /\ node_count s <= node_count s' /\ cap <= node_count s'.

Definition exact1 (F : snap -> C -> Prop) (cap : nat) (s : snap) (rb : gres C R)
    (su : snap) (cu : C) (ru : R) : Prop :=
  (node_count su <= Nat.max cap (node_count s) -> rb = GOk su cu ru) /\
  (Nat.max cap (node_count s) < node_count su -> exists s' c', rb = GOom s' c' /\ F s' c').

Lemma sim1_retry : forall cap s (rb : gres C R) su cu ru,
  sim C no_m2 cap 1 s rb (Some (su, cu, ru)) -> node_count su <= cap -> rb = GOk su cu ru.
Proof. intros cap s rb su cu ru M Hfit. apply (sim_retry_le C no_m2 cap 1 R s rb su cu ru M Hfit). unfold no_m2. lia. Qed.

Lemma sim1_monotone : forall cap cap' s (rb rb' : gres C R) ru s' c' r, cap <= cap' ->
  sim C no_m2 cap 1 s rb ru -> sim C no_m2 cap' 1 s rb' ru -> rb = GOk s' c' r -> rb' = GOk s' c' r.
Proof. intros cap cap' s rb rb' ru s' c' r Hle. apply (sim_monotone C R no_m2 cap 1 cap' 1); auto. Qed.

Lemma failed1_of_state : forall cap s s' c',
  failed_state C no_m2 cap 1 Inv ext s s' c' -> failed1 cap s s' c'.
Proof.
  intros cap s s' c' [I [X [[G _] F]]]. simpl in G, F. unfold no_m2 in F.
  split; [exact I|]. split; [exact X|]. lia.
Qed.

Lemma run1_failed : forall cap s (rb : gres C R) ru s' c',
  res_safe Inv ext Q s rb -> sim C no_m2 cap 1 s rb ru -> rb = GOom s' c' -> failed1 cap s s' c'.
Proof.
  intros cap s rb ru s' c' S M E. subst rb. apply failed1_of_state.
  apply (failed_intro C no_m2 cap 1 Inv ext R Q s s' c' ru S M).
Qed.

Lemma run1_exact : forall (F : snap -> C -> Prop) cap s (rb : gres C R) su cu ru,
  (forall s' c', failed1 cap s s' c' -> F s' c') ->
  res_safe Inv ext Q s rb -> sim C no_m2 cap 1 s rb (Some (su, cu, ru)) -> exact1 F cap s rb su cu ru.
Proof.
  intros F cap s rb su cu ru HF S M.
  destruct (exact_upper C no_m2 cap 1 Inv ext R Q s rb su cu ru S M) as [A1 A2]. split.
  - intros Hfit. apply A1. unfold no_m2. lia.
  - intros Hbig. destruct (A2 (or_introl Hbig)) as [s' [c' [E Fs]]].
    exists s', c'. split; [exact E | apply HF, failed1_of_state, Fs].
Qed.

Lemma exact1_code : forall (F F' : snap -> C -> Prop) cap s (rb rb' : gres C R) su cu ru,
  exact1 F cap s rb su cu ru -> exact1 F' cap s rb' su cu ru -> gres_code rb = gres_code rb'.
Proof.
  intros F F' cap s rb rb' su cu ru [A1 B1] [A2 B2].
  destruct (le_lt_dec (node_count su) (Nat.max cap (node_count s))) as [Hfit|Hbig].
  - rewrite (A1 Hfit), (A2 Hfit). reflexivity.
  - destruct (B1 Hbig) as [s1 [c1 [-> _]]]. destruct (B2 Hbig) as [s2 [c2 [-> _]]]. reflexivity.
Qed.

End OneBudget.

(** an operation that is a single insertion (a variable, a singleton): the
    bounded outcome [b] (outer [None] = an [unwrap] panics, inner [None] =
    out of memory, manager untouched) against the unbounded one *)
Definition leaf1 {R : Type} (cap : nat) (s : snap) (b : option (option (snap * R)))
    (u : option (snap * R)) : Prop :=
  match u with
  | Some x => exists o, b = Some o /\ leaf_rel no_m2 cap 1 s o x
  | None => b = None
  end.

Lemma leaf1_exact : forall R cap s b s' (r : R), leaf1 cap s b (Some (s', r)) ->
  (node_count s' <= Nat.max cap (node_count s) -> b = Some (Some (s', r))) /\
  (Nat.max cap (node_count s) < node_count s' -> b = Some None /\ cap <= node_count s).
Proof.
  intros R cap s b s' r [o [Eo [G L]]]. simpl in G, L. unfold no_m2 in *. split.
  - intros Hfit. destruct o as [x|]; [destruct L as [-> _]; exact Eo|].
    exfalso. destruct L as [_ N]. apply N. lia.
  - intros Hbig. destruct o as [x|]; [exfalso; destruct L as [_ W]; lia|].
    split; [exact Eo|]. destruct L as [[F|F] _]; lia.
Qed.

Lemma leaf1_never_wrong : forall R cap s b u s' (r : R), leaf1 cap s b u ->
  b = Some (Some (s', r)) -> u = Some (s', r).
Proof.
  intros R cap s b [x|] s' r M E; [|simpl in M; congruence].
  destruct M as [o [Eo [_ L]]]. rewrite E in Eo. inversion Eo; subst o. destruct L as [-> _]. reflexivity.
Qed.

Section Sim.
Variable lt : edge -> edge -> bool.
Variable C : Type.
Variable cget : C -> N -> list edge -> option edge.
Variable cadd : C -> N -> list edge -> edge -> C.
Variable cap : nat.
Variable par : nat -> bool.

Notation SIM := (sim C no_m2 cap 1).

Lemma cmk_node_leaf : forall s lvl t e,
  leaf_rel no_m2 cap 1 s (cmk_node_cap cap s lvl t e) (cmk_node s lvl t e).
Proof.
  intros s lvl t e. unfold cmk_node_cap, cmk_node.
  destruct (edge_eqb t e); [apply leaf_same|].
  destruct (etag t).
  - apply (leaf_map no_m2 cap 1 edge edge s _ _ (fun r => mkEdge (eref r) true)).
    apply goi_leaf. exact no_m2_terms.
  - apply (leaf_map no_m2 cap 1 edge edge s _ _ (fun r => mkEdge (eref r) false)).
    apply goi_leaf. exact no_m2_terms.
Qed.

(** ** Unfolding lemmas *)

Lemma capply_bin_c_S : forall n s c op f g,
  capply_bin_c lt C cget cadd cap par (S n) s c op f g =
  match cterminal s op f g with
  | KFail => GStuck
  | KDone h => GOk s c h
  | KNodes fnode gnode =>
    if lt f g
    then cbin_step_c C cget cadd cap (par n) (fun s' c' f' g' => capply_bin_c lt C cget cadd cap par n s' c' op f' g')
           s c op f fnode g gnode
    else cbin_step_c C cget cadd cap (par n) (fun s' c' f' g' => capply_bin_c lt C cget cadd cap par n s' c' op f' g')
           s c op g gnode f fnode
  end.
Proof. reflexivity. Qed.

Lemma capply_ite_c_S : forall n s c f g h,
  capply_ite_c lt C cget cadd cap par (S n) s c f g h =
    if ref_eqb (eref g) (eref h) then
      if Bool.eqb (etag g) (etag h) then GOk s c g
      else onot_c C (capply_bin_c lt C cget cadd cap par (S n) s c CXor f g)
    else if ref_eqb (eref f) (eref g) then
      if Bool.eqb (etag f) (etag g)
      then onot_c C (capply_bin_c lt C cget cadd cap par (S n) s c CAnd (enot f) (enot h))
      else capply_bin_c lt C cget cadd cap par (S n) s c CAnd (enot f) h
    else if ref_eqb (eref f) (eref h) then
      if Bool.eqb (etag f) (etag h) then capply_bin_c lt C cget cadd cap par (S n) s c CAnd f g
      else onot_c C (capply_bin_c lt C cget cadd cap par (S n) s c CAnd f (enot g))
    else
      match cnode s f with
      | None => GStuck
      | Some NVT => GOk s c (if etag f then h else g)
      | Some (NVI fnode) =>
        match cnode s g, cnode s h with
        | Some (NVI gnode), Some (NVI hnode) =>
          cite_step_c C cget cadd cap (par n)
            (fun s' c' f' g' h' => capply_ite_c lt C cget cadd cap par n s' c' f' g' h')
            s c f fnode g gnode h hnode
        | Some NVT, Some (NVI _) =>
          if etag g then capply_bin_c lt C cget cadd cap par (S n) s c CAnd (enot f) h
          else onot_c C (capply_bin_c lt C cget cadd cap par (S n) s c CAnd (enot f) (enot h))
        | Some _, Some NVT =>
          if etag h then capply_bin_c lt C cget cadd cap par (S n) s c CAnd f g
          else onot_c C (capply_bin_c lt C cget cadd cap par (S n) s c CAnd f (enot g))
        | _, _ => GStuck
        end
      end.
Proof. reflexivity. Qed.

(** ** The walks *)

Lemma cfin_sim : forall s2 c2 lvl t e (kc : edge -> C),
  SIM s2 (gfin s2 c2 (cmk_node_cap cap s2 lvl t e) kc (fun h => h))
         (ufin (cmk_node s2 lvl t e) kc (fun h => h)).
Proof. intros. apply gfin_sim. apply cmk_node_leaf. Qed.

Lemma cbin_step_sim : forall p (rec : snap -> C -> edge -> edge -> cres_c C) urec,
  (forall s c f g, SIM s (rec s c f g) (urec s c f g)) ->
  forall s c op f fnode g gnode,
    SIM s (cbin_step_c C cget cadd cap p rec s c op f fnode g gnode)
          (cbin_step C cget cadd urec s c op f fnode g gnode).
Proof.
  intros p rec urec IH s c op f fnode g gnode. unfold cbin_step_c, cbin_step.
  destruct (cget c (cop_code op) [f; g]); [apply sim_here|].
  cbv zeta. set (lvl := Nat.min (nstored fnode) (nstored gnode)).
  destruct (ccof2 f fnode lvl) as [[ft fe]|]; [|apply sim_stuck].
  destruct (ccof2 g gnode lvl) as [[gt ge]|]; [|apply sim_stuck].
  (* the unbounded step is convertible to [ujoin2 .. .. (fun .. => ufin ..)] *)
  apply (gjoin2_sim C no_m2 cap 1 edge edge edge p s _ _ _ (fun s1 c1 => urec s1 c1 fe ge) _
           (fun s2 c2 t e => ufin (cmk_node s2 lvl t e) (fun h => cadd c2 (cop_code op) [f; g] h) (fun h => h)));
    [apply IH | intros; apply IH | intros; apply cfin_sim].
Qed.

Theorem capply_bin_sim : forall fuel s c op f g,
  SIM s (capply_bin_c lt C cget cadd cap par fuel s c op f g) (capply_bin lt C cget cadd fuel s c op f g).
Proof.
  induction fuel as [|n IH]; intros s c op f g; [apply sim_stuck|].
  rewrite capply_bin_c_S, capply_bin_S.
  destruct (cterminal s op f g) as [h|fn gn|]; [apply sim_here | | apply sim_stuck].
  destruct (lt f g); apply cbin_step_sim; intros; apply IH.
Qed.

Lemma onot_sim : forall s r u, SIM s r u -> SIM s (onot_c C r) (onot C u).
Proof.
  intros s r u H.
  apply (gbind_sim C no_m2 cap 1 edge edge s r u _ (fun s1 c1 e => Some (s1, c1, enot e)) H).
  intros. apply sim_here.
Qed.

Theorem capply_not_sim : forall s c f, SIM s (capply_not_c C s c f) (capply_not C s c f).
Proof. intros. apply sim_here. Qed.

Theorem capply_op_sim : forall o fuel s c f g,
  SIM s (capply_op_c lt C cget cadd cap par fuel s c o f g) (capply_op lt C cget cadd fuel s c o f g).
Proof.
  intros o fuel s c f g. destruct o; unfold capply_op_c, capply_op;
    try apply onot_sim; apply capply_bin_sim.
Qed.

Lemma cite_step_sim : forall p (rec : snap -> C -> edge -> edge -> edge -> cres_c C) urec,
  (forall s c f g h, SIM s (rec s c f g h) (urec s c f g h)) ->
  forall s c f fnode g gnode h hnode,
    SIM s (cite_step_c C cget cadd cap p rec s c f fnode g gnode h hnode)
          (cite_step C cget cadd urec s c f fnode g gnode h hnode).
Proof.
  intros p rec urec IH s c f fnode g gnode h hnode. unfold cite_step_c, cite_step.
  destruct (cget c ccode_ite [f; g; h]); [apply sim_here|].
  cbv zeta. set (lvl := Nat.min (Nat.min (nstored fnode) (nstored gnode)) (nstored hnode)).
  destruct (ccof2 f fnode lvl) as [[ft fe]|]; [|apply sim_stuck].
  destruct (ccof2 g gnode lvl) as [[gt ge]|]; [|apply sim_stuck].
  destruct (ccof2 h hnode lvl) as [[ht he]|]; [|apply sim_stuck].
  apply (gjoin2_sim C no_m2 cap 1 edge edge edge p s _ _ _ (fun s1 c1 => urec s1 c1 fe ge he) _
           (fun s2 c2 t e => ufin (cmk_node s2 lvl t e) (fun r => cadd c2 ccode_ite [f; g; h] r) (fun r => r)));
    [apply IH | intros; apply IH | intros; apply cfin_sim].
Qed.

Theorem capply_ite_sim : forall fuel s c f g h,
  SIM s (capply_ite_c lt C cget cadd cap par fuel s c f g h) (capply_ite lt C cget cadd fuel s c f g h).
Proof.
  induction fuel as [|n IH]; intros s c f g h; [apply sim_stuck|].
  rewrite capply_ite_c_S, capply_ite_S.
  destruct (ref_eqb (eref g) (eref h)).
  { destruct (Bool.eqb (etag g) (etag h)); [apply sim_here | apply onot_sim, capply_bin_sim]. }
  destruct (ref_eqb (eref f) (eref g)).
  { destruct (Bool.eqb (etag f) (etag g)); [apply onot_sim, capply_bin_sim | apply capply_bin_sim]. }
  destruct (ref_eqb (eref f) (eref h)).
  { destruct (Bool.eqb (etag f) (etag h)); [apply capply_bin_sim | apply onot_sim, capply_bin_sim]. }
  destruct (cnode s f) as [[fnd|]|]; [| apply sim_here | apply sim_stuck].
  destruct (cnode s g) as [[gnd|]|]; destruct (cnode s h) as [[hnd|]|]; try apply sim_stuck.
  - apply cite_step_sim. intros; apply IH.
  - destruct (etag h); [apply capply_bin_sim | apply onot_sim, capply_bin_sim].
  - destruct (etag g); [apply capply_bin_sim | apply onot_sim, capply_bin_sim].
  - destruct (etag h); [apply capply_bin_sim | apply onot_sim, capply_bin_sim].
Qed.

End Sim.

(** ** Variable creation *)

Lemma cmk_var_cap_sim : forall cap s v neg, leaf1 cap s (cmk_var_cap cap s v neg) (cmk_var s v neg).
Proof.
  intros cap s v neg. unfold leaf1, cmk_var, cmk_var_cap.
  destruct (nth_error (s_v2l s) v) as [lvl|]; [|reflexivity].
  destruct (cget_terminal s true) as [t|]; [|reflexivity].
  destruct (cget_terminal s false) as [e|]; [|reflexivity].
  pose proof (goi_leaf no_m2 no_m2_terms cap 1 s lvl [t; e]) as L.
  pose proof (leaf_map no_m2 cap 1 edge edge s _ _ (fun r => mkEdge (eref r) neg) L) as L'.
  destruct (get_or_insert s lvl [t; e]) as [s' r] eqn:Eg.
  destruct (get_or_insert_cap cap s lvl [t; e]) as [[s2 r2]|]; eexists; split; try reflexivity; exact L'.
Qed.
