(** * Out-of-memory behaviour of the BCDD quantification / apply-and-quantify /
      restriction / substitution algorithms (Mgr/OomBcddQ.v), part 1

    Facts that need no invariant (every table, cache, fuel, capacity, recursors,
    operand order): [*_sim] - when a bounded algorithm returns [GOk s' c' r] the
    unbounded algorithm of DD/QuantBcdd.v returns literally [Some (s', c', r)] and
    at most [cap] nodes are stored unless nothing was inserted; when it returns
    [GOom s' c'] no node has disappeared and the store is full; when the unbounded
    algorithm returns a table that fits, the bounded one returns exactly that
    result.  The invariant-dependent part is in Mgr/OomBcddQSafe.v. *)

From Coq Require Import List NArith PArith Bool Arith Lia FMapPositive.
From OxiVerif Require Import DD.Table DD.TableProofs DD.Sem DD.Build DD.BuildProofs
  DD.Apply DD.ApplyBcdd DD.ApplyBcddProofs DD.ApplyBcddIte DD.Quant DD.QuantBcdd
  DD.QuantBcddLemmas DD.QuantBcddProofs DD.ApplyQuantBcddProofs DD.RestrictBcddProofs DD.SubstBcddProofs
  Mgr.Oom Mgr.OomProofs.
From OxiVerif Require Import Mgr.OomGen Mgr.OomGenProofs Mgr.OomBcdd Mgr.OomBcddProofs Mgr.OomBcddQ.
Import ListNotations.

Section Sim.
Variable lt : edge -> edge -> bool.
Variable C : Type.
Variable cget : C -> N -> list edge -> option edge.
Variable cadd : C -> N -> list edge -> edge -> C.
Variable cap : nat.
Variable pin : nat -> bool.

Notation SIM := (sim C no_m2 cap 1).
Notation cres := (option (snap * C * edge)).

(** ** [substitute_prepare] *)

(** the unbounded loop with the (untouched) cache threaded through *)
Definition with_cache {R : Type} (c : C) (u : option (snap * R)) : option (snap * C * R) :=
  match u with Some (s', x) => Some (s', c, x) | None => None end.

Lemma cprepare_fill_sim : forall slots s c level,
  SIM s (cprepare_fill_c C cap s c slots level) (with_cache c (cprepare_fill s slots level)).
Proof.
  induction slots as [|[e|] rest IH]; intros s c level.
  - apply sim_here.
  - simpl.
    replace (with_cache c match cprepare_fill s rest (S level) with
                          | Some (s', l) => Some (s', e :: l) | None => None end)
      with (ubind (with_cache c (cprepare_fill s rest (S level)))
                  (fun s' (c' : C) l => Some (s', c', e :: l)))
      by (destruct (cprepare_fill s rest (S level)) as [[s' l]|]; reflexivity).
    apply gbind_sim; [apply IH | intros; apply sim_here].
  - simpl. destruct (cget_terminal s true) as [t1|]; [|apply sim_stuck].
    destruct (cget_terminal s false) as [t0|]; [|apply sim_stuck].
    replace (with_cache c (let '(s1, e) := get_or_insert s level [t1; t0] in
                           match cprepare_fill s1 rest (S level) with
                           | Some (s', l) => Some (s', e :: l) | None => None end))
      with (ubind (ufin (get_or_insert s level [t1; t0]) (fun _ => c) (fun e : edge => e))
                  (fun s1 c1 e => ubind (with_cache c1 (cprepare_fill s1 rest (S level)))
                                        (fun s' (c' : C) l => Some (s', c', e :: l)))).
    2:{ destruct (get_or_insert s level [t1; t0]) as [s1 e]. simpl.
        destruct (cprepare_fill s1 rest (S level)) as [[s' l]|]; reflexivity. }
    apply gbind_sim.
    + apply gfin_sim. apply goi_leaf. exact no_m2_terms.
    + intros s1 c1 e. apply gbind_sim; [apply IH | intros; apply sim_here].
Qed.

Lemma csubstitute_prepare_sim : forall s c pairs,
  SIM s (csubstitute_prepare_c C cap s c pairs) (with_cache c (csubstitute_prepare s pairs)).
Proof.
  intros s c pairs. unfold csubstitute_prepare_c, csubstitute_prepare.
  destruct (cprepare_slots s pairs []) as [slots|]; [apply cprepare_fill_sim | apply sim_stuck].
Qed.

(** ** The inner calls *)

Lemma ccombine_sim : forall s c q t e,
  SIM s (ccombine_c lt C cget cadd cap pin s c q t e) (ccombine lt C cget cadd s c q t e).
Proof.
  intros s c q t e. destruct q; unfold ccombine_c, ccombine;
    try apply onot_sim; apply capply_bin_sim.
Qed.

Lemma cplain_sim : forall s c o f g,
  SIM s (cplain_c lt C cget cadd cap pin s c o f g) (cplain lt C cget cadd s c o f g).
Proof.
  intros s c o f g. destruct o; unfold cplain_c, cplain;
    try apply onot_sim; apply capply_bin_sim.
Qed.

Lemma cfalse_sim : forall s c, SIM s (cfalse_c C s c) (cfalse C s c).
Proof.
  intros s c. unfold cfalse_c, cfalse. destruct (cget_terminal s false); [apply sim_here | apply sim_stuck].
Qed.

(** the end of [quant] / [apply_quant] in combinator form *)
Definition cqfin_u (s2 : snap) (c2 : C) (q : quantifier) (same : bool) (lvl : nat) (code : N) (key : list edge)
    (t e : edge) : cres :=
  if same then
    ubind (ccombine lt C cget cadd s2 c2 q t e) (fun s3 c3 res => Some (s3, cadd c3 code key res, res))
  else
    ufin (cmk_node s2 lvl t e) (fun h => cadd c2 code key h) (fun h => h).

Lemma cqfin_sim : forall s2 c2 q same lvl code key t e,
  SIM s2 (cqfin_c lt C cget cadd cap pin s2 c2 q same lvl code key t e)
         (cqfin_u s2 c2 q same lvl code key t e).
Proof.
  intros. unfold cqfin_c, cqfin_u. destruct same.
  - apply gbind_sim; [apply ccombine_sim | intros; apply sim_here].
  - apply gfin_sim. apply cmk_node_leaf.
Qed.

(** ** [quant] *)

Section Own.
Variable par : nat -> bool.

Theorem cquant_sim : forall fuel s c q f vars,
  SIM s (cquant_c lt C cget cadd cap pin par fuel s c q f vars) (cquant_rec lt C cget cadd fuel s c q f vars).
Proof.
  induction fuel as [|n IH]; intros s c q f vars; [apply sim_stuck|].
  cbn [cquant_c cquant_rec].
  destruct (eref f) as [tf|fid].
  { destruct (negb (is_unique q) || is_term vars); [apply sim_here | apply cfalse_sim]. }
  destruct (find_node s fid) as [fnode|]; [|apply sim_stuck].
  destruct (if is_unique q then Some vars else cset_pop (S (nlevels s)) s vars (nstored fnode)) as [vars'|];
    [|apply sim_stuck].
  destruct (eref vars') as [tv|vid]; [apply sim_here|].
  destruct (find_node s vid) as [vnode|]; [|apply sim_stuck].
  destruct (is_unique q && Nat.ltb (nstored vnode) (nstored fnode)); [apply cfalse_sim|].
  destruct (cget c (cqcode q) [f; vars']); [apply sim_here|].
  destruct (ccofs (etag f) fnode) as [[ft fe]|]; [|apply sim_stuck].
  destruct (if Nat.eqb (nstored vnode) (nstored fnode)
            then match nchildren vnode with [vt; _] => Some vt | _ => None end
            else Some vars') as [vt|]; [|apply sim_stuck].
  (* [ujoin2] and [cqfin_u] unfold to the nested matches of [cquant_rec] *)
  apply gjoin2_sim; [apply IH | intros; apply IH | intros; apply cqfin_sim].
Qed.

(** ** [restrict] *)

Theorem crestrict_sim : forall fuel s c f vars,
  SIM s (crestrict_c C cget cadd cap par fuel s c f vars) (crestrict C cget cadd fuel s c f vars).
Proof.
  induction fuel as [|n IH]; intros s c f vars; [apply sim_stuck|].
  cbn [crestrict_c crestrict].
  destruct (eref f) as [tf|fid]; [apply sim_here|].
  destruct (eref vars) as [tv|vid]; [apply sim_here|].
  destruct (find_node s fid) as [fnode|]; [|apply sim_stuck].
  destruct (find_node s vid) as [vnode|]; [|apply sim_stuck].
  destruct (crestrict_inner _ s f (etag f) fnode (nstored fnode) vars (etag vars) vnode)
    as [[r|vars' f' f_neg fnode']|]; [apply sim_here | | apply sim_stuck].
  destruct (cget c ccode_restrict [untag f'; vars']); [apply sim_here|].
  destruct (nchildren fnode') as [|ft [|fe [|x rest]]]; try apply sim_stuck.
  apply gjoin2_sim; [apply IH | intros; apply IH|].
  intros s2 c2 t e. apply gfin_sim. apply cmk_node_leaf.
Qed.

(** ** [substitute] *)

Theorem csubstitute_sim : forall fuel s c f subst id,
  SIM s (csubstitute_c lt C cget cadd cap pin par fuel s c f subst id)
        (csubstitute lt C cget cadd fuel s c f subst id).
Proof.
  induction fuel as [|n IH]; intros s c f subst id; [apply sim_stuck|].
  cbn [csubstitute_c csubstitute].
  destruct (eref f) as [tf|fid]; [apply sim_here|].
  destruct (find_node s fid) as [fnode|]; [|apply sim_stuck].
  destruct (Nat.leb (length subst) (nstored fnode)); [apply sim_here|].
  destruct (cget c (ccode_subst id) [f]); [apply sim_here|].
  destruct (ccofs (etag f) fnode) as [[ft fe]|]; [|apply sim_stuck].
  apply gjoin2_sim; [apply IH | intros; apply IH|].
  intros s2 c2 t e. destruct (nth_error subst (nstored fnode)) as [r|]; [|apply sim_stuck].
  apply gbind_sim; [apply capply_ite_sim | intros; apply sim_here].
Qed.

(** ** [apply_quant] *)

Lemma caq_body_U : forall rec s c q o operator f fnode g gnode vars,
  caq_body lt C cget cadd rec s c q o operator f fnode g gnode vars =
  let flevel := nstored fnode in
  let glevel := nstored gnode in
  let min_level := Nat.min flevel glevel in
  match (if is_unique q then Some vars else cset_pop (S (nlevels s)) s vars min_level) with
  | None => None
  | Some vars' =>
    match eref vars' with
    | RT _ => cplain lt C cget cadd s c o f g
    | RN vid =>
      match find_node s vid with
      | None => None
      | Some vnode =>
        let vlevel := nstored vnode in
        if Nat.ltb vlevel min_level && is_unique q then cfalse C s c
        else if Nat.ltb vlevel min_level then cplain lt C cget cadd s c o f g
        else
          match cget c operator [f; g; vars'] with
          | Some h => Some (s, c, h)
          | None =>
            match (if Nat.eqb vlevel min_level
                   then match nchildren vnode with [vt; _] => Some vt | _ => None end
                   else Some vars'),
                  (if Nat.leb flevel glevel then ccofs (etag f) fnode else Some (f, f)),
                  (if Nat.leb glevel flevel then ccofs (etag g) gnode else Some (g, g)) with
            | Some vt, Some (ft, fe), Some (gt', ge) =>
              ujoin2 (rec s c ft gt' vt) (fun s1 c1 => rec s1 c1 fe ge vt)
                (fun s2 c2 t e =>
                   cqfin_u s2 c2 q (Nat.eqb min_level vlevel) min_level operator [f; g; vars'] t e)
            | _, _, _ => None
            end
          end
      end
    end
  end.
Proof.
  intros rec s c q o operator f fnode g gnode vars. unfold caq_body.
  set (m := Nat.min (nstored fnode) (nstored gnode)).
  destruct (if is_unique q then Some vars else cset_pop (S (nlevels s)) s vars m) as [vars'|]; [|reflexivity].
  destruct (eref vars') as [tv|vid]; [reflexivity|].
  destruct (find_node s vid) as [vnode|]; [|reflexivity].
  destruct (Nat.ltb (nstored vnode) m && is_unique q); [reflexivity|].
  destruct (Nat.ltb (nstored vnode) m); [reflexivity|].
  destruct (cget c operator [f; g; vars']); [reflexivity|].
  destruct (if Nat.eqb (nstored vnode) m
            then match nchildren vnode with [vt; _] => Some vt | _ => None end
            else Some vars') as [vt|]; [|reflexivity].
  destruct (if Nat.leb (nstored fnode) (nstored gnode) then ccofs (etag f) fnode else Some (f, f))
    as [[ft fe]|]; [|reflexivity].
  destruct (if Nat.leb (nstored gnode) (nstored fnode) then ccofs (etag g) gnode else Some (g, g))
    as [[gt' ge]|]; [|reflexivity].
  unfold ujoin2, cqfin_u.
  destruct (rec s c ft gt' vt) as [[[s1 c1] t]|]; [|reflexivity].
  destruct (rec s1 c1 fe ge vt) as [[[s2 c2] e]|]; [|reflexivity].
  destruct (Nat.eqb m (nstored vnode)); reflexivity.
Qed.

Lemma caq_body_sim : forall p (rec : snap -> C -> edge -> edge -> edge -> cres_c C) urec,
  (forall s c a b v, SIM s (rec s c a b v) (urec s c a b v)) ->
  forall s c q o operator f fnode g gnode vars,
    SIM s (caq_body_c lt C cget cadd cap pin p rec s c q o operator f fnode g gnode vars)
          (caq_body lt C cget cadd urec s c q o operator f fnode g gnode vars).
Proof.
  intros p rec urec IH s c q o operator f fnode g gnode vars. rewrite caq_body_U. unfold caq_body_c.
  set (m := Nat.min (nstored fnode) (nstored gnode)).
  destruct (if is_unique q then Some vars else cset_pop (S (nlevels s)) s vars m) as [vars'|]; [|apply sim_stuck].
  destruct (eref vars') as [tv|vid]; [apply cplain_sim|].
  destruct (find_node s vid) as [vnode|]; [|apply sim_stuck].
  destruct (Nat.ltb (nstored vnode) m && is_unique q); [apply cfalse_sim|].
  destruct (Nat.ltb (nstored vnode) m); [apply cplain_sim|].
  destruct (cget c operator [f; g; vars']); [apply sim_here|].
  destruct (if Nat.eqb (nstored vnode) m
            then match nchildren vnode with [vt; _] => Some vt | _ => None end
            else Some vars') as [vt|]; [|apply sim_stuck].
  destruct (if Nat.leb (nstored fnode) (nstored gnode) then ccofs (etag f) fnode else Some (f, f))
    as [[ft fe]|]; [|apply sim_stuck].
  destruct (if Nat.leb (nstored gnode) (nstored fnode) then ccofs (etag g) gnode else Some (g, g))
    as [[gt' ge]|]; [|apply sim_stuck].
  apply gjoin2_sim; [apply IH | intros; apply IH | intros; apply cqfin_sim].
Qed.

End Own.

Section Own2.
Variable par : nat -> bool.

Theorem capply_quant_sim : forall fuel s c q o f g vars,
  SIM s (capply_quant_c lt C cget cadd cap pin par fuel s c q o f g vars)
        (capply_quant lt C cget cadd fuel s c q o f g vars).
Proof.
  induction fuel as [|n IH]; intros s c q o f g vars; [apply sim_stuck|].
  cbn [capply_quant_c]. rewrite capply_quant_S.
  destruct (caqcode q o) as [operator|]; [|apply sim_stuck].
  destruct (match o with AQXor => cterminal_xor s f g | _ => cterminal_and s f g end) as [h|fn gn|];
    [apply cquant_sim | | apply sim_stuck].
  destruct (lt f g); apply caq_body_sim; intros; apply IH.
Qed.

Lemma aq_sim : forall s c q o f g vars,
  SIM s (aq_c lt C cget cadd cap pin par s c q o f g vars) (aq lt C cget cadd s c q o f g vars).
Proof. intros. apply capply_quant_sim. Qed.

Theorem capply_quant_edge_sim : forall s c q op f g vars,
  SIM s (capply_quant_edge_c lt C cget cadd cap pin par s c q op f g vars)
        (capply_quant_edge lt C cget cadd s c q op f g vars).
Proof.
  intros s c q op f g vars.
  destruct q; unfold capply_quant_edge_c, capply_quant_edge,
    capply_quant_dispatch_c, capply_quant_dispatch,
    capply_quant_unique_dispatch_c, capply_quant_unique_dispatch;
    destruct op; try apply onot_sim; apply aq_sim.
Qed.

Theorem csubstitute_edge_sim : forall s c f pairs id,
  SIM s (csubstitute_edge_c lt C cget cadd cap pin par s c f pairs id)
        (csubstitute_edge lt C cget cadd s c f pairs id).
Proof.
  intros s c f pairs id. unfold csubstitute_edge_c.
  replace (csubstitute_edge lt C cget cadd s c f pairs id)
    with (ubind (with_cache c (csubstitute_prepare s pairs))
                (fun s0 c0 subst => csubstitute lt C cget cadd (S (nlevels s0)) s0 c0 f subst id))
    by (unfold csubstitute_edge; destruct (csubstitute_prepare s pairs) as [[s0 sv]|]; reflexivity).
  apply gbind_sim; [apply csubstitute_prepare_sim | intros; apply csubstitute_sim].
Qed.

(** ** All four families at once *)

Theorem cqrun_sim : forall s c k,
  SIM s (cqrun_c lt C cget cadd cap par pin s c k) (cqrun_u lt C cget cadd s c k).
Proof.
  intros s c [q f vars|q op f g vars|f vars|f pairs id]; unfold cqrun_c, cqrun_u.
  - apply cquant_sim.
  - apply capply_quant_edge_sim.
  - apply crestrict_sim.
  - apply csubstitute_edge_sim.
Qed.

End Own2.
End Sim.
