(** * Out-of-memory behaviour of the BCDD quantification / apply-and-quantify /
      restriction / substitution algorithms (Mgr/OomBcddQ.v), part 2

    Under the invariant of the C04 theorems for BCDDs ([BcOK], the quantification
    cache invariant [QCacheOKC] of DD/QuantBcddLemmas.v, operands valid edges):

    - [capply_bin_c_frame], [capply_ite_c_frame]: an inner bounded apply only adds
      cache entries with the operator codes And / Xor / Ite - on BOTH outcomes
      (an invariant-free walk); hence the bounded apply algorithms of
      Mgr/OomBcdd.v preserve [QCacheOKC] when they succeed and when they fail
      ([cbin_qs], [cite_qs]);
    - [*_c_safe]: the bounded algorithms never get stuck, and whatever they
      return - result or out-of-memory - the table they leave is a well-formed
      BCDD table extending the one they started from, with a correct cache.  The
      [GOk] case is never re-proved: refinement ([*_sim]) + the theorem of the
      unbounded model ([cquant_rec_ok], [capply_quant_ok], [crestrict_ok],
      [csubstitute_ok], [cprepare_ok]);
    - [cqcall_ok], [cqrun_c_safe]: the four families at once. *)

From Coq Require Import List NArith PArith Bool Arith Lia FMapPositive.
From OxiVerif Require Import DD.Table DD.TableProofs DD.Canon DD.CanonBcdd DD.Sem DD.Build DD.BuildProofs
  DD.Apply DD.ApplyProofs DD.ApplyBcdd DD.ApplyBcddProofs DD.ApplyBcddIte DD.ApplyBcddEval
  DD.Quant DD.QuantLemmas DD.QuantProofs DD.QuantBcdd DD.QuantBcddLemmas DD.QuantBcddProofs
  DD.ApplyQuantBcddProofs DD.RestrictBcddProofs DD.SubstBcddProofs
  Mgr.Oom Mgr.OomProofs.
From OxiVerif Require Import Mgr.OomGen Mgr.OomGenProofs Mgr.OomBcdd Mgr.OomBcddProofs Mgr.OomBcddSafe
  Mgr.OomBcddQ Mgr.OomBcddQProofs.
Import ListNotations.

Section GenQ.
Variable C : Type.
Variable Inv : snap -> C -> Prop.
Variable ext : snap -> snap -> Prop.
Hypothesis ext_trans : forall s1 s2 s3, ext s1 s2 -> ext s2 s3 -> ext s1 s3.

Lemma res_safe_from : forall R (Q : snap -> R -> Prop) s s1 (r : gres C R),
  ext s s1 -> res_safe Inv ext Q s1 r -> res_safe Inv ext Q s r.
Proof.
  intros R Q s s1 [s' c' x|s' c'|] X H; simpl in *; auto.
  - destruct H as [I [X' Qx]]. eauto.
  - destruct H as [I X']. eauto.
Qed.

(** [r?] followed by a pure post-processing *)
Lemma gbind_fs_pure : forall R R' s (r1 : gres C R) (g : R -> R'),
  fail_safe Inv ext s r1 -> fail_safe Inv ext s (gbind r1 (fun s' c' l => GOk s' c' (g l))).
Proof. intros R R' s [s1 c1 x|s1 c1|] g H; simpl in *; auto. Qed.

End GenQ.

(** ** The cache after an inner bounded apply: only low operator codes are added *)

Section Frame.
Variable lt : edge -> edge -> bool.
Variable C : Type.
Variable cget : C -> N -> list edge -> option edge.
Variable cadd : C -> N -> list edge -> edge -> C.
Hypothesis Hlossy : lossyC cget cadd.
Variable cap : nat.
Variable par : nat -> bool.

Definition cframe {R : Type} (c : C) (r : gres C R) : Prop :=
  match r with
  | GOk _ c' _ => serves_fromC cget c c'
  | GOom _ c' => serves_fromC cget c c'
  | GStuck => True
  end.

Lemma cframe_from : forall R c c1 (r : gres C R), serves_fromC cget c c1 -> cframe c1 r -> cframe c r.
Proof. intros R c c1 [s' c' x|s' c'|] A F; simpl in *; auto; eapply sfc_trans; eauto. Qed.

Lemma gjoin2_frame : forall R1 R2 R' p c (r1 : gres C R1) (run2 : snap -> C -> gres C R2)
    (fin : snap -> C -> R1 -> R2 -> gres C R'),
  cframe c r1 -> (forall s1 c1, cframe c1 (run2 s1 c1)) -> (forall s2 c2 t e, cframe c2 (fin s2 c2 t e)) ->
  cframe c (gjoin2 p r1 run2 fin).
Proof.
  intros R1 R2 R' p c r1 run2 fin H1 H2 H3. unfold gjoin2.
  destruct r1 as [s1 c1 t|s1 c1|]; simpl in H1; [| |exact I].
  - specialize (H2 s1 c1). destruct (run2 s1 c1) as [s2 c2 e|s2 c2|]; simpl in H2; [| |exact I].
    + apply (cframe_from _ c c1 _ H1). apply (cframe_from _ c1 c2 _ H2). apply H3.
    + simpl. eapply sfc_trans; eauto.
  - destruct p; [|exact H1]. specialize (H2 s1 c1).
    destruct (run2 s1 c1) as [s2 c2 e|s2 c2|]; simpl in *; [| |exact I]; eapply sfc_trans; eauto.
Qed.

Lemma gbind_frame : forall R R' c (r1 : gres C R) (k : snap -> C -> R -> gres C R'),
  cframe c r1 -> (forall s1 c1 x, cframe c1 (k s1 c1 x)) -> cframe c (gbind r1 k).
Proof.
  intros R R' c [s1 c1 x|s1 c1|] k H1 H2; simpl in *; [|exact H1|exact I].
  apply (cframe_from _ c c1 _ H1). apply H2.
Qed.

Lemma gfin_frame : forall R R' s c (o : option (snap * R)) (kc : R -> C) (kr : R -> R'),
  (forall h, serves_fromC cget c (kc h)) -> cframe c (gfin s c o kc kr).
Proof. intros R R' s c [[s' h]|] kc kr H; simpl; [apply H | apply sfc_refl]. Qed.

Lemma onot_c_frame : forall c (r : cres_c C), cframe c r -> cframe c (onot_c C r).
Proof. intros c [s' c' x|s' c'|] H; simpl in *; auto. Qed.

Lemma cbin_step_c_frame : forall p (rec : snap -> C -> edge -> edge -> cres_c C),
  (forall s c f g, cframe c (rec s c f g)) ->
  forall s c op f fnode g gnode, cframe c (cbin_step_c C cget cadd cap p rec s c op f fnode g gnode).
Proof.
  intros p rec IH s c op f fnode g gnode. unfold cbin_step_c.
  destruct (cget c (cop_code op) [f; g]); [apply sfc_refl|].
  destruct (ccof2 f fnode _) as [[ft fe]|]; [|exact I].
  destruct (ccof2 g gnode _) as [[gt ge]|]; [|exact I].
  apply gjoin2_frame; [apply IH | intros; apply IH|].
  intros s2 c2 t e. apply gfin_frame. intros h.
  apply (sfc_add C cget cadd Hlossy). destruct op; simpl; lia.
Qed.

Theorem capply_bin_c_frame : forall fuel s c op f g,
  cframe c (capply_bin_c lt C cget cadd cap par fuel s c op f g).
Proof.
  induction fuel as [|n IH]; intros s c op f g; [exact I|].
  rewrite capply_bin_c_S.
  destruct (cterminal s op f g) as [h|fn gn|]; [apply sfc_refl | | exact I].
  destruct (lt f g); apply cbin_step_c_frame; intros; apply IH.
Qed.

Lemma cite_step_c_frame : forall p (rec : snap -> C -> edge -> edge -> edge -> cres_c C),
  (forall s c f g h, cframe c (rec s c f g h)) ->
  forall s c f fnode g gnode h hnode,
    cframe c (cite_step_c C cget cadd cap p rec s c f fnode g gnode h hnode).
Proof.
  intros p rec IH s c f fnode g gnode h hnode. unfold cite_step_c.
  destruct (cget c ccode_ite [f; g; h]); [apply sfc_refl|].
  destruct (ccof2 f fnode _) as [[ft fe]|]; [|exact I].
  destruct (ccof2 g gnode _) as [[gt ge]|]; [|exact I].
  destruct (ccof2 h hnode _) as [[ht he]|]; [|exact I].
  apply gjoin2_frame; [apply IH | intros; apply IH|].
  intros s2 c2 t e. apply gfin_frame. intros r.
  apply (sfc_add C cget cadd Hlossy). unfold ccode_ite. lia.
Qed.

Theorem capply_ite_c_frame : forall fuel s c f g h,
  cframe c (capply_ite_c lt C cget cadd cap par fuel s c f g h).
Proof.
  induction fuel as [|n IH]; intros s c f g h; [exact I|].
  rewrite capply_ite_c_S.
  destruct (ref_eqb (eref g) (eref h)).
  { destruct (Bool.eqb (etag g) (etag h)); [apply sfc_refl | apply onot_c_frame, capply_bin_c_frame]. }
  destruct (ref_eqb (eref f) (eref g)).
  { destruct (Bool.eqb (etag f) (etag g)); [apply onot_c_frame, capply_bin_c_frame | apply capply_bin_c_frame]. }
  destruct (ref_eqb (eref f) (eref h)).
  { destruct (Bool.eqb (etag f) (etag h)); [apply capply_bin_c_frame | apply onot_c_frame, capply_bin_c_frame]. }
  destruct (cnode s f) as [[fnd|]|]; [| apply sfc_refl | exact I].
  destruct (cnode s g) as [[gnd|]|]; destruct (cnode s h) as [[hnd|]|]; try exact I.
  - apply cite_step_c_frame. intros; apply IH.
  - destruct (etag h); [apply capply_bin_c_frame | apply onot_c_frame, capply_bin_c_frame].
  - destruct (etag g); [apply capply_bin_c_frame | apply onot_c_frame, capply_bin_c_frame].
  - destruct (etag h); [apply capply_bin_c_frame | apply onot_c_frame, capply_bin_c_frame].
Qed.

End Frame.

(** ** The walks *)

Section Safe.
Variable lt : edge -> edge -> bool.
Variable C : Type.
Variable cget : C -> N -> list edge -> option edge.
Variable cadd : C -> N -> list edge -> edge -> C.
Hypothesis Hlossy : lossyC cget cadd.
(** the registry of substitution objects (id -> pairs) of [QCacheOKC] *)
Variable Sg : N -> option (list (nat * edge)).
Variable cap : nat.
Variable pin : nat -> bool.

Notation QOKC := (QCacheOKC cget Sg).

(** the invariant of the C04 theorems for BCDDs *)
Definition QInv (s : snap) (c : C) : Prop := BcOK s /\ QOKC s c.

Notation RS := (res_safe QInv extends Qedge).
Notation FS := (fail_safe QInv extends).

Lemma qedge_mono : forall s1 s2 (x : edge), extends s1 s2 -> Qedge s1 x -> Qedge s2 x.
Proof. intros s1 s2 x X. apply (ext_ref_ok _ _ _ X). Qed.

(** the bounded apply algorithms under the stronger cache invariant *)
Lemma lift_qsafe : forall s c (r : gres C edge), BcOK s -> QOKC s c ->
  res_safe (CInv C cget) extends Qedge s r -> cframe C cget c r -> RS s r.
Proof.
  intros s c [s' c' x|s' c'|] B Q S F; simpl in *; [| |exact S].
  - destruct S as [[B' O'] [X Qx]]. split; [|split; assumption]. split; [exact B'|].
    apply (qcacheokc_frame C cget Sg s s' c c' B X Q O' F).
  - destruct S as [[B' O'] X]. split; [|exact X]. split; [exact B'|].
    apply (qcacheokc_frame C cget Sg s s' c c' B X Q O' F).
Qed.

Lemma cbin_qs : forall op s c f g, BcOK s -> QOKC s c -> ref_ok s (eref f) -> ref_ok s (eref g) ->
  RS s (capply_bin_c lt C cget cadd cap pin (S (nlevels s)) s c op f g).
Proof.
  intros op s c f g B Q Hf Hg. apply (lift_qsafe s c); auto.
  - apply (capply_bin_c_safe lt C cget cadd Hlossy); auto; [apply (proj1 Q) | lia].
  - apply (capply_bin_c_frame lt C cget cadd Hlossy).
Qed.

Lemma cite_qs : forall s c f g h, BcOK s -> QOKC s c ->
  ref_ok s (eref f) -> ref_ok s (eref g) -> ref_ok s (eref h) ->
  RS s (capply_ite_c lt C cget cadd cap pin (S (nlevels s)) s c f g h).
Proof.
  intros s c f g h B Q Hf Hg Hh. apply (lift_qsafe s c); auto.
  - apply (capply_ite_c_safe lt C cget cadd Hlossy); auto; [apply (proj1 Q) | lia].
  - apply (capply_ite_c_frame lt C cget cadd Hlossy).
Qed.

Lemma onot_c_qs : forall s r, RS s r -> RS s (onot_c C r).
Proof. intros s [s' c' x|s' c'|] H; simpl in *; auto. Qed.

Lemma ccombine_c_qs : forall q s c t e, BcOK s -> QOKC s c -> ref_ok s (eref t) -> ref_ok s (eref e) ->
  RS s (ccombine_c lt C cget cadd cap pin s c q t e).
Proof.
  intros q s c t e B Q Ht He. destruct q; unfold ccombine_c; try apply onot_c_qs; apply cbin_qs; auto.
Qed.

Lemma cplain_c_qs : forall o s c f g, BcOK s -> QOKC s c -> ref_ok s (eref f) -> ref_ok s (eref g) ->
  RS s (cplain_c lt C cget cadd cap pin s c o f g).
Proof.
  intros o s c f g B Q Hf Hg. destruct o; unfold cplain_c; try apply onot_c_qs; apply cbin_qs; auto.
Qed.

Lemma cfalse_c_fs : forall s c, BcOK s -> FS s (cfalse_c C s c).
Proof.
  intros s c B. unfold cfalse_c. destruct (cget_terminal_den s false B) as [e [Et _]]. rewrite Et. exact I.
Qed.

Lemma cqfin_c_fs : forall s2 c2 q same lvl code key t e,
  BcOK s2 -> QOKC s2 c2 -> ref_ok s2 (eref t) -> ref_ok s2 (eref e) ->
  FS s2 (cqfin_c lt C cget cadd cap pin s2 c2 q same lvl code key t e).
Proof.
  intros s2 c2 q same lvl code key t e B Q Ht He. unfold cqfin_c. destruct same.
  - apply (gbind_safe C QInv extends extends_trans edge edge Qedge).
    + apply ccombine_c_qs; auto.
    + intros; exact I.
  - apply gfin_safe; [split; assumption | apply extends_refl].
Qed.

(** the two children of a stored node *)
Lemma two_children_c : forall s id nd, BcOK s -> find_node s id = Some nd ->
  exists ft fe, nchildren nd = [ft; fe] /\
    ref_ok s (eref ft) /\ ref_ok s (eref fe) /\
    nlevel nd < rlevel s (eref ft) /\ nlevel nd < rlevel s (eref fe).
Proof.
  intros s id nd B E. pose proof (bc_wf s B) as H.
  destruct (bcdd_children s id nd B E) as [ft [fe Ech]]. exists ft, fe. split; [exact Ech|].
  assert (Hft : nth_error (nchildren nd) 0 = Some ft) by (rewrite Ech; reflexivity).
  assert (Hfe : nth_error (nchildren nd) 1 = Some fe) by (rewrite Ech; reflexivity).
  destruct (child_nth s H id nd 0 ft E Hft) as [Oft Lft].
  destruct (child_nth s H id nd 1 fe E Hfe) as [Ofe Lfe]. auto.
Qed.

(** what a [qcresult_ok] (DD/QuantBcddLemmas.v) of the unbounded run gives
    [safe_by_sim] *)
Lemma qcres_post : forall s ru Phi, qcresult_ok cget Sg s ru Phi ->
  exists s1 c1 r1, ru = Some (s1, c1, r1) /\ QInv s1 c1 /\ extends s s1 /\ Qedge s1 r1.
Proof.
  intros s ru Phi [s1 [c1 [r1 [E [B [X [Q D]]]]]]]. exists s1, c1, r1.
  split; [exact E|]. split; [split; assumption|]. split; [exact X | apply (proj1 D)].
Qed.

(** the popped variable set is a valid edge *)
Lemma cpop_struct : forall s (u : bool) vars lvl, BcOK s -> ref_ok s (eref vars) -> lvl <= nlevels s ->
  exists vars', (if u then Some vars else cset_pop (S (nlevels s)) s vars lvl) = Some vars' /\
                ref_ok s (eref vars').
Proof.
  intros s u vars lvl B Hv Hl. destruct u; [eauto|].
  destruct (vchainc_total s B vars Hv) as [L V].
  pose proof (rlevel_le s (bc_wf s B) (eref vars)).
  destruct (cset_pop_ok s B (S (nlevels s)) vars L lvl Hv V ltac:(lia) Hl) as [vars' [L' [E [O' _]]]].
  eauto.
Qed.

(** the variable set handed to the recursive calls is a valid edge *)
Lemma cvt_struct : forall s (same : bool) vars' vid vnd, BcOK s -> eref vars' = RN vid ->
  find_node s vid = Some vnd ->
  exists vt, (if same then match nchildren vnd with [vt0; _] => Some vt0 | _ => None end else Some vars')
             = Some vt /\ ref_ok s (eref vt).
Proof.
  intros s same vars' vid vnd B Er Evn. destruct same.
  - destruct (two_children_c s vid vnd B Evn) as [vt [ve [Evch [Ovt _]]]]. rewrite Evch. eauto.
  - exists vars'. split; [reflexivity|]. rewrite Er. exists vnd. exact Evn.
Qed.

(** ** [quant] *)

Theorem cquant_c_safe : forall par q fuel s c f vars,
  BcOK s -> QOKC s c -> ref_ok s (eref f) -> ref_ok s (eref vars) ->
  nlevels s - rlevel s (eref f) < fuel ->
  RS s (cquant_c lt C cget cadd cap pin par fuel s c q f vars).
Proof.
  intros par q. induction fuel as [|n IH]; intros s c f vars B Q Hf Hv Hfuel; [lia|].
  apply (safe_by_sim C no_m2 cap 1 QInv extends edge Qedge s _ _ (cquant_sim lt C cget cadd cap pin par (S n) s c q f vars)).
  { destruct (denc_exists s f B Hf) as [phi D]. destruct (vchainc_total s B vars Hv) as [L V].
    apply (qcres_post s _ _ (cquant_rec_ok lt C cget cadd Hlossy Sg q (S n) s c f vars phi L B Q D Hv V Hfuel)). }
  pose proof (bc_wf s B) as H.
  cbn [cquant_c]. destruct (eref f) as [tf|fid] eqn:Erf.
  { destruct (negb (is_unique q) || is_term vars); [exact I | apply cfalse_c_fs; exact B]. }
  destruct Hf as [fnd Ef]. rewrite Ef. rewrite (wf_stored s H fid fnd Ef).
  rewrite (rlevel_node s fid fnd Ef) in Hfuel. pose proof (wf_level s H fid fnd Ef) as Hlv.
  destruct (cpop_struct s (is_unique q) vars (nlevel fnd) B Hv ltac:(lia)) as [vars' [Epop Ov']].
  rewrite Epop. destruct (eref vars') as [tv|vid] eqn:Erv; [exact I|].
  destruct Ov' as [vnd Evn]. rewrite Evn. rewrite (wf_stored s H vid vnd Evn).
  destruct (is_unique q && Nat.ltb (nlevel vnd) (nlevel fnd)); [apply cfalse_c_fs; exact B|].
  destruct (cget c (cqcode q) [f; vars']); [exact I|].
  destruct (two_children_c s fid fnd B Ef) as [a [b [Ech [Oft [Ofe [Lft Lfe]]]]]]. unfold ccofs. rewrite Ech.
  destruct (cvt_struct s (Nat.eqb (nlevel vnd) (nlevel fnd)) vars' vid vnd B Erv Evn) as [vt [Evt Ovt]].
  rewrite Evt.
  apply (gjoin2_safe_q C QInv extends extends_trans edge edge edge Qedge Qedge).
  - exact qedge_mono.
  - apply IH; auto. simpl. lia.
  - intros s1 c1 [B1 Q1] X1. apply IH; auto.
    + apply (ext_ref_ok _ _ _ X1). exact Ofe.
    + apply (ext_ref_ok _ _ _ X1). exact Ovt.
    + simpl. rewrite (ext_nlevels _ _ X1), (ext_rlevel _ _ _ X1 Ofe). lia.
  - intros s2 c2 t e [B2 Q2] X2 Ht He. apply cqfin_c_fs; auto.
Qed.

(** ** [restrict] *)

Section Own.
Variable par : nat -> bool.

Theorem crestrict_c_safe : forall fuel s c f vars,
  BcOK s -> QOKC s c -> ref_ok s (eref f) -> ref_ok s (eref vars) ->
  nlevels s - rlevel s (eref f) < fuel ->
  RS s (crestrict_c C cget cadd cap par fuel s c f vars).
Proof.
  induction fuel as [|n IH]; intros s c f vars B Q Hf Hv Hfuel; [lia|].
  destruct (denc_exists s f B Hf) as [phi D].
  apply (safe_by_sim C no_m2 cap 1 QInv extends edge Qedge s _ _ (crestrict_sim C cget cadd cap par (S n) s c f vars)).
  { destruct (lchainc_total s B (eref vars) (etag vars) Hv) as [M V].
    apply (qcres_post s _ _ (crestrict_ok C cget cadd Hlossy Sg (S n) s c f vars phi M B Q D Hv V Hfuel)). }
  pose proof (bc_wf s B) as H.
  cbn [crestrict_c]. destruct (eref f) as [tf|fid] eqn:Erf; [exact I|].
  destruct (eref vars) as [tv|vid] eqn:Erv; [exact I|].
  destruct Hf as [fnd Ef]. destruct Hv as [vnd Ev]. rewrite Ef, Ev.
  rewrite (wf_stored s H fid fnd Ef). rewrite (rlevel_node s fid fnd Ef) in Hfuel.
  pose proof (wf_level s H fid fnd Ef) as Hlf. pose proof (wf_level s H vid vnd Ev) as Hlv.
  assert (D0 : DenC s (mkEdge (eref f) (etag f)) phi) by (rewrite edge_eta; exact D).
  destruct (lchainc_total s B (RN vid) (etag vars) (ex_intro _ vnd Ev)) as [M V].
  destruct (crestrict_inner_ok s B (S (nlevels s + nlevels s)) f (etag f) fid fnd vars (etag vars) vid vnd
              phi M Erf Ef Erv Ev D0 V ltac:(lia)) as [res [Eri P]].
  rewrite Eri. destruct res as [r|vars' f' f_neg fnode']; [exact I|]. simpl in P.
  destruct P as [fid' [vid' [vnd' [phi' [M' [Erf' [Ef' [Erv' [Ev' [D' [V' [Hlt [Hle HE]]]]]]]]]]]]].
  destruct (cget c ccode_restrict [untag f'; vars']); [exact I|].
  destruct (two_children_c s fid' fnode' B Ef') as [ft [fe [Ech [Oft [Ofe [Lft Lfe]]]]]]. rewrite Ech.
  assert (Ov' : ref_ok s (eref vars')) by (rewrite Erv'; exists vnd'; exact Ev').
  apply (gjoin2_safe C QInv extends extends_trans edge edge edge Qedge Qedge).
  - apply IH; auto. lia.
  - intros s1 c1 [B1 Q1] X1. apply IH; auto.
    + apply (ext_ref_ok _ _ _ X1). exact Ofe.
    + apply (ext_ref_ok _ _ _ X1). exact Ov'.
    + rewrite (ext_nlevels _ _ X1), (ext_rlevel _ _ _ X1 Ofe). lia.
  - intros s2 c2 t e I2 X2. apply gfin_safe; [exact I2 | apply extends_refl].
Qed.

(** ** [substitute] *)

Theorem csubstitute_c_safe : forall fuel s c f sv id pairs,
  BcOK s -> QOKC s c -> ref_ok s (eref f) -> SvOKC s sv pairs -> Sg id = Some pairs ->
  nlevels s - rlevel s (eref f) < fuel ->
  RS s (csubstitute_c lt C cget cadd cap pin par fuel s c f sv id).
Proof.
  induction fuel as [|n IH]; intros s c f sv id pairs B Q Hf SV Es Hfuel; [lia|].
  apply (safe_by_sim C no_m2 cap 1 QInv extends edge Qedge s _ _ (csubstitute_sim lt C cget cadd cap pin par (S n) s c f sv id)).
  { destruct (denc_exists s f B Hf) as [phi D].
    apply (qcres_post s _ _ (csubstitute_ok lt C cget cadd Hlossy Sg (S n) s c f sv id pairs phi B Q D SV Es Hfuel)). }
  pose proof (bc_wf s B) as H.
  cbn [csubstitute_c]. destruct (eref f) as [tf|fid] eqn:Erf; [exact I|].
  destruct Hf as [fnd Ef]. rewrite Ef. rewrite (wf_stored s H fid fnd Ef).
  rewrite (rlevel_node s fid fnd Ef) in Hfuel. pose proof (wf_level s H fid fnd Ef) as Hlv.
  destruct (Nat.leb_spec (length sv) (nlevel fnd)) as [Hlen|Hlen]; [exact I|].
  destruct (cget c (ccode_subst id) [f]); [exact I|].
  destruct (two_children_c s fid fnd B Ef) as [a [b [Ech [Oft [Ofe [Lft Lfe]]]]]]. unfold ccofs. rewrite Ech.
  destruct (nth_error sv (nlevel fnd)) as [r|] eqn:Er; [|apply nth_error_None in Er; lia].
  assert (Or : ref_ok s (eref r)).
  { destruct SV as [F _]. rewrite Forall_forall in F. apply F. eapply nth_error_In; eauto. }
  apply (gjoin2_safe_q C QInv extends extends_trans edge edge edge Qedge Qedge).
  - exact qedge_mono.
  - apply (IH s c _ sv id pairs); auto. simpl. lia.
  - intros s1 c1 [B1 Q1] X1. apply (IH s1 c1 _ sv id pairs); auto.
    + apply (ext_ref_ok _ _ _ X1). exact Ofe.
    + apply (svokc_extends s s1 sv pairs H X1 SV).
    + simpl. rewrite (ext_nlevels _ _ X1), (ext_rlevel _ _ _ X1 Ofe). lia.
  - intros s2 c2 t e [B2 Q2] X2 Ht He.
    apply (gbind_safe C QInv extends extends_trans edge edge Qedge).
    + apply cite_qs; auto. apply (ext_ref_ok _ _ _ X2). exact Or.
    + intros; exact I.
Qed.

End Own.

(** ** [substitute_prepare] *)

Lemma cprepare_fill_c_fs : forall slots s c level, BcOK s -> QOKC s c ->
  level + length slots <= nlevels s ->
  FS s (cprepare_fill_c C cap s c slots level).
Proof.
  induction slots as [|[e|] rest IH]; intros s c level B Q Hlen.
  - exact I.
  - simpl in Hlen. cbn [cprepare_fill_c]. apply gbind_fs_pure. apply IH; auto. lia.
  - simpl in Hlen. cbn [cprepare_fill_c].
    destruct (cget_terminal_den s true B) as [t1 [T1 _]]. destruct (cget_terminal_den s false B) as [t0 [T0 _]].
    rewrite T1, T0.
    destruct (get_or_insert_cap cap s level [t1; t0]) as [[s1 e]|] eqn:Ec; cbn [gfin gbind].
    + destruct (get_or_insert_cap_some cap s level _ _ Ec) as [Eg _].
      destruct (cvar_node_ok s level t1 t0 s1 e B ltac:(lia) T1 T0 Eg) as [B1 [X1 _]].
      apply (fail_safe_from C QInv extends extends_trans _ s s1 _ X1).
      apply gbind_fs_pure. apply IH; auto.
      * apply (qcacheokc_extends C cget Sg s s1 c B X1 Q).
      * rewrite (ext_nlevels _ _ X1). lia.
    + split; [split; assumption | apply extends_refl].
Qed.

Theorem csubstitute_prepare_c_safe : forall s c pairs,
  BcOK s -> QOKC s c -> NoDup (map fst pairs) ->
  (forall v r, In (v, r) pairs -> v < nlevels s /\ ref_ok s (eref r)) ->
  res_safe QInv extends (fun s0 sv => SvOKC s0 sv pairs) s (csubstitute_prepare_c C cap s c pairs).
Proof.
  intros s c pairs B Q Hnd Hp. pose proof (bc_wf s B) as H.
  apply (safe_by_sim C no_m2 cap 1 QInv extends _ _ s _ _ (csubstitute_prepare_sim C cap s c pairs)).
  - destruct (cprepare_ok s pairs B Hnd Hp) as [s0 [sv0 [Ep [B0 [X0 SV]]]]].
    exists s0, c, sv0. rewrite Ep. split; [reflexivity|].
    split; [split; [exact B0 | apply (qcacheokc_extends C cget Sg s s0 c B X0 Q)]|]. split; assumption.
  - unfold csubstitute_prepare_c.
    assert (Hv : forall v r, In (v, r) pairs -> v < nlevels s) by (intros v r Hin; apply (Hp v r Hin)).
    destruct (cprepare_slots_ok s pairs [] H Hv ltac:(simpl; lia)) as [slots [E [Hlen _]]].
    rewrite E. apply cprepare_fill_c_fs; auto.
Qed.

(** ** [apply_quant] *)

Lemma caq_body_c_fs : forall q o k n p (rec : snap -> C -> edge -> edge -> edge -> cres_c C),
  (forall s c a b v, BcOK s -> QOKC s c -> ref_ok s (eref a) -> ref_ok s (eref b) -> ref_ok s (eref v) ->
     nlevels s - Nat.min (rlevel s (eref a)) (rlevel s (eref b)) < n -> RS s (rec s c a b v)) ->
  forall s c f idf fnd g idg gnd vars,
    BcOK s -> QOKC s c -> ref_ok s (eref f) -> ref_ok s (eref g) -> ref_ok s (eref vars) ->
    eref f = RN idf -> find_node s idf = Some fnd ->
    eref g = RN idg -> find_node s idg = Some gnd ->
    nlevels s - Nat.min (nlevel fnd) (nlevel gnd) < S n ->
    FS s (caq_body_c lt C cget cadd cap pin p rec s c q o k f fnd g gnd vars).
Proof.
  intros q o k n p rec IH s c f idf fnd g idg gnd vars B Q Hf Hg Hv Erf Ef Erg Eg Hfuel.
  pose proof (bc_wf s B) as H.
  pose proof (wf_level s H idf fnd Ef) as Hlf. pose proof (wf_level s H idg gnd Eg) as Hlg.
  destruct (denc_exists s f B Hf) as [phi Df]. destruct (denc_exists s g B Hg) as [psi Dg].
  unfold caq_body_c.
  rewrite (wf_stored s H idf fnd Ef), (wf_stored s H idg gnd Eg).
  set (m := Nat.min (nlevel fnd) (nlevel gnd)) in *.
  destruct (cpop_struct s (is_unique q) vars m B Hv ltac:(lia)) as [vars' [Epop Ov']].
  rewrite Epop.
  assert (Plain : FS s (cplain_c lt C cget cadd cap pin s c o f g))
    by (eapply res_fail_safe; apply cplain_c_qs; auto).
  destruct (eref vars') as [tv|vid] eqn:Erv; [exact Plain|].
  destruct Ov' as [vnd Evn]. rewrite Evn. rewrite (wf_stored s H vid vnd Evn).
  destruct (Nat.ltb (nlevel vnd) m && is_unique q); [apply cfalse_c_fs; exact B|].
  destruct (Nat.ltb (nlevel vnd) m); [exact Plain|].
  destruct (cget c k [f; g; vars']); [exact I|].
  destruct (cvt_struct s (Nat.eqb (nlevel vnd) m) vars' vid vnd B Erv Evn) as [vt [Evt Ovt]].
  rewrite Evt.
  rewrite (pair_is_ccof2 f fnd (nlevel gnd) (wf_stored s H idf fnd Ef)).
  rewrite (pair_is_ccof2 g gnd (nlevel fnd) (wf_stored s H idg gnd Eg)).
  rewrite (Nat.min_comm (nlevel gnd) (nlevel fnd)). fold m.
  destruct (ccof2_ok s f idf fnd phi m B Df Erf Ef ltac:(lia)) as [ft [fe [Ecf [Dft [Dfe [Lft Lfe]]]]]].
  destruct (ccof2_ok s g idg gnd psi m B Dg Erg Eg ltac:(lia)) as [gt' [ge [Ecg [Dgt [Dge [Lgt Lge]]]]]].
  rewrite Ecf, Ecg.
  apply (gjoin2_safe_q C QInv extends extends_trans edge edge edge Qedge Qedge).
  - exact qedge_mono.
  - apply IH; auto; [apply (proj1 Dft) | apply (proj1 Dgt) | lia].
  - intros s1 c1 [B1 Q1] X1. apply IH; auto.
    + apply (ext_ref_ok _ _ _ X1 (proj1 Dfe)).
    + apply (ext_ref_ok _ _ _ X1 (proj1 Dge)).
    + apply (ext_ref_ok _ _ _ X1 Ovt).
    + rewrite (ext_nlevels _ _ X1), (ext_rlevel _ _ _ X1 (proj1 Dfe)), (ext_rlevel _ _ _ X1 (proj1 Dge)). lia.
  - intros s2 c2 t e [B2 Q2] X2 Ht He. apply cqfin_c_fs; auto.
Qed.

Section Own2.
Variable par : nat -> bool.

Theorem capply_quant_c_safe : forall q o k, caqcode q o = Some k ->
  forall fuel s c f g vars,
  BcOK s -> QOKC s c -> ref_ok s (eref f) -> ref_ok s (eref g) -> ref_ok s (eref vars) ->
  nlevels s - Nat.min (rlevel s (eref f)) (rlevel s (eref g)) < fuel ->
  RS s (capply_quant_c lt C cget cadd cap pin par fuel s c q o f g vars).
Proof.
  intros q o k Ek. induction fuel as [|n IH]; intros s c f g vars B Q Hf Hg Hv Hfuel; [lia|].
  destruct (denc_exists s f B Hf) as [phi Df]. destruct (denc_exists s g B Hg) as [psi Dg].
  apply (safe_by_sim C no_m2 cap 1 QInv extends edge Qedge s _ _ (capply_quant_sim lt C cget cadd cap pin par (S n) s c q o f g vars)).
  { destruct (vchainc_total s B vars Hv) as [L V].
    apply (qcres_post s _ _ (capply_quant_ok lt C cget cadd Hlossy Sg q o k Ek (S n) s c f g vars phi psi L B Q Df Dg Hv V Hfuel)). }
  pose proof (bc_wf s B) as H.
  cbn [capply_quant_c]. rewrite Ek.
  set (cop_of := match o with AQXor => CXor | _ => CAnd end).
  assert (Et : (match o with AQXor => cterminal_xor s f g | _ => cterminal_and s f g end)
               = cterminal s cop_of f g) by (unfold cop_of; destruct o; reflexivity).
  rewrite Et. pose proof (cterminal_sound s cop_of f g phi psi B Df Dg) as T.
  destruct (cterminal s cop_of f g) as [h|fn gn|]; [| |contradiction].
  - assert (Oh : ref_ok s (eref (match o with AQNand => enot h | _ => h end)))
      by (destruct o; apply (proj1 T)).
    eapply res_fail_safe. apply cquant_c_safe; auto.
    pose proof (rlevel_le s H (eref (match o with AQNand => enot h | _ => h end))). lia.
  - destruct T as [idf [idg [Erf [Ef [Erg Eg]]]]].
    rewrite Erf, Erg, (rlevel_node s idf fn Ef), (rlevel_node s idg gn Eg) in Hfuel.
    destruct (lt f g).
    + apply (caq_body_c_fs q o k n (par n) _ IH s c f idf fn g idg gn vars); auto.
    + apply (caq_body_c_fs q o k n (par n) _ IH s c g idg gn f idf fn vars); auto. lia.
Qed.

Lemma aq_c_safe : forall q o k, caqcode q o = Some k -> forall s c f g vars,
  BcOK s -> QOKC s c -> ref_ok s (eref f) -> ref_ok s (eref g) -> ref_ok s (eref vars) ->
  RS s (aq_c lt C cget cadd cap pin par s c q o f g vars).
Proof.
  intros q o k Ek s c f g vars B Q Hf Hg Hv. unfold aq_c.
  apply (capply_quant_c_safe q o k Ek); auto. lia.
Qed.

Theorem capply_quant_edge_c_safe : forall q op s c f g vars,
  BcOK s -> QOKC s c -> ref_ok s (eref f) -> ref_ok s (eref g) -> ref_ok s (eref vars) ->
  RS s (capply_quant_edge_c lt C cget cadd cap pin par s c q op f g vars).
Proof.
  intros q op s c f g vars B Q Hf Hg Hv.
  assert (Hnf : ref_ok s (eref (enot f))) by exact Hf.
  assert (Hng : ref_ok s (eref (enot g))) by exact Hg.
  destruct q; unfold capply_quant_edge_c, capply_quant_dispatch_c, capply_quant_unique_dispatch_c;
    destruct op; try apply onot_c_qs; (eapply aq_c_safe; [reflexivity | auto ..]).
Qed.

Theorem csubstitute_edge_c_safe : forall s c f pairs id,
  BcOK s -> QOKC s c -> ref_ok s (eref f) -> NoDup (map fst pairs) ->
  (forall v r, In (v, r) pairs -> v < nlevels s /\ ref_ok s (eref r)) -> Sg id = Some pairs ->
  RS s (csubstitute_edge_c lt C cget cadd cap pin par s c f pairs id).
Proof.
  intros s c f pairs id B Q Hf Hnd Hp Es. unfold csubstitute_edge_c.
  pose proof (csubstitute_prepare_c_safe s c pairs B Q Hnd Hp) as P.
  destruct (csubstitute_prepare_c C cap s c pairs) as [s0 c0 sv|s0 c0|]; simpl in P |- *;
    [|exact P|contradiction].
  destruct P as [[B0 Q0] [X0 SV]].
  apply (res_safe_from C QInv extends extends_trans _ _ s s0 _ X0).
  apply (csubstitute_c_safe par (S (nlevels s0)) s0 c0 f sv id pairs); auto.
  - apply (ext_ref_ok _ _ _ X0). exact Hf.
  - pose proof (rlevel_le s0 (bc_wf s0 B0) (eref f)). lia.
Qed.

(** ** The four families at once *)

(** what the caller must guarantee: the operands are valid edges; for
    [substitute]: the variables are distinct and exist, the replacements are
    valid edges, the substitution object is registered under its id *)
Definition cqcall_ok (s : snap) (k : cqcall) : Prop :=
  match k with
  | CQQuant q f vars => ref_ok s (eref f) /\ ref_ok s (eref vars)
  | CQApplyQuant q op f g vars => ref_ok s (eref f) /\ ref_ok s (eref g) /\ ref_ok s (eref vars)
  | CQRestrict f vars => ref_ok s (eref f) /\ ref_ok s (eref vars)
  | CQSubst f pairs id =>
    ref_ok s (eref f) /\ NoDup (map fst pairs) /\
    (forall v r, In (v, r) pairs -> v < nlevels s /\ ref_ok s (eref r)) /\ Sg id = Some pairs
  end.

Theorem cqrun_c_safe : forall s c k, BcOK s -> QOKC s c -> cqcall_ok s k ->
  RS s (cqrun_c lt C cget cadd cap par pin s c k).
Proof.
  intros s c k B Q Hk. pose proof (bc_wf s B) as H.
  destruct k as [q f vars|q op f g vars|f vars|f pairs id]; simpl in Hk; unfold cqrun_c.
  - destruct Hk as [Hf Hv]. unfold cquant_edge_c. apply cquant_c_safe; auto.
    pose proof (rlevel_le s H (eref f)). lia.
  - destruct Hk as [Hf [Hg Hv]]. apply capply_quant_edge_c_safe; auto.
  - destruct Hk as [Hf Hv]. unfold crestrict_edge_c. apply crestrict_c_safe; auto.
    pose proof (rlevel_le s H (eref f)). lia.
  - destruct Hk as [Hf [Hnd [Hp Es]]]. apply csubstitute_edge_c_safe; auto.
Qed.

End Own2.
End Safe.
