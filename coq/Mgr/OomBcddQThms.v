(** * Out-of-memory behaviour of the BCDD quantification / apply-and-quantify /
      restriction / substitution algorithms (Mgr/OomBcddQ.v): the C14 statements

    One call type [cqcall] for the four families ([forall/exists/unique_edge],
    [apply_forall/exists/unique_edge] with all 8 operators, [restrict_edge],
    [substitute_edge] including [substitute_prepare]); [cqrun_c] = the bounded
    entry point, [cqrun_u] = the entry point of DD/QuantBcdd.v.  For every edge
    order, cache that only serves what was added, capacity (= every failure
    point), recursor of the algorithm and recursor of its inner calls:

    - [cq_never_wrong], [cq_retry], [cq_monotone]: no hypothesis;
    - under [QInv] ([BcOK] + [QCacheOKC]) and [cqcall_ok] (operands valid):
      [cq_never_wrong_sem], [cq_safe], [cq_no_panic], [cq_exact],
      [cq_outcome_recursor_indep]. *)

From Coq Require Import List NArith PArith Bool Arith Lia FMapPositive.
From OxiVerif Require Import DD.Table DD.TableProofs DD.Sem DD.Build DD.BuildProofs
  DD.Apply DD.ApplyBcdd DD.ApplyBcddProofs DD.ApplyBcddEval
  DD.Quant DD.QuantSpecProofs DD.QuantBcdd DD.QuantBcddLemmas DD.SubstBcddProofs DD.QuantBcddTop
  Mgr.Oom Mgr.OomProofs.
From OxiVerif Require Import Mgr.OomGen Mgr.OomGenProofs Mgr.OomFamily Mgr.OomBcdd Mgr.OomBcddProofs Mgr.OomBcddSafe
  Mgr.OomBcddQ Mgr.OomBcddQProofs Mgr.OomBcddQSafe.
Import ListNotations.

(** the semantic statement of a result [r] in table [s'] for call [k] issued in
    table [s] (the conclusions of [cquant_edge_sound], [capply_quant_edge_sound],
    [crestrict_edge_sound], [csubstitute_edge_sound] of DD/QuantBcddTop.v) *)
Definition cqcall_spec (s : snap) (k : cqcall) (s' : snap) (r : edge) : Prop :=
  match k with
  | CQQuant q f vars =>
    forall vs, (forall v, In v vs -> v < nlevels s) -> is_varsetC s vars vs -> (q = QUnique -> NoDup vs) ->
    forall a, cbfun_of s' r a = quant (qfun q) vs (cbfun_of s f) a
  | CQApplyQuant q op f g vars =>
    forall vs, (forall v, In v vs -> v < nlevels s) -> is_varsetC s vars vs -> (q = QUnique -> NoDup vs) ->
    forall a, cbfun_of s' r a = quant (qfun q) vs (lift2 op (cbfun_of s f) (cbfun_of s g)) a
  | CQRestrict f vars =>
    forall lits, NoDup (map fst lits) -> (forall p, In p lits -> fst p < nlevels s) -> is_cubeC s vars lits ->
    forall a, cbfun_of s' r a = restrict_s lits (cbfun_of s f) a
  | CQSubst f pairs id =>
    forall a, cbfun_of s' r a =
              subst_s (map (fun p => (fst p, cbfun_of s (snd p))) pairs) (cbfun_of s f) a
  end.

(** the state after a failure *)
Definition cqfailed_ok {C : Type} (cget : C -> N -> list edge -> option edge)
    (Sg : N -> option (list (nat * edge))) (cap : nat) (s s' : snap) (c' : C) : Prop :=
  QInv C cget Sg s' c' /\ extends s s' /\ intact_c s s' /\
  node_count s <= node_count s' /\ cap <= node_count s'.

(** the unbounded entry points are total and correct (C04) *)
Theorem cqrun_u_sound : forall lt C cget cadd Sg s c k,
  lossyC cget cadd -> QInv C cget Sg s c -> cqcall_ok Sg s k ->
  exists s' c' r, cqrun_u lt C cget cadd s c k = Some (s', c', r) /\
    QInv C cget Sg s' c' /\ extends s s' /\ ref_ok s' (eref r) /\ cqcall_spec s k s' r.
Proof.
  intros lt C cget cadd Sg s c k Hl [B Q] Hk.
  assert (H : exists s' c' r, cqrun_u lt C cget cadd s c k = Some (s', c', r) /\
            BcOK s' /\ extends s s' /\ QCacheOKC cget Sg s' c' /\ ref_ok s' (eref r) /\ cqcall_spec s k s' r).
  { destruct k as [q f vars|q op f g vars|f vars|f pairs id]; simpl in Hk; unfold cqrun_u, cqcall_spec.
    - destruct Hk as [Hf Hv]. apply (cquant_edge_sound lt C cget cadd Hl Sg q s c f vars B Q Hf Hv).
    - destruct Hk as [Hf [Hg Hv]].
      apply (capply_quant_edge_sound lt C cget cadd Hl Sg q op s c f g vars B Q Hf Hg Hv).
    - destruct Hk as [Hf Hv]. apply (crestrict_edge_sound C cget cadd Hl Sg s c f vars B Q Hf Hv).
    - destruct Hk as [Hf [Hnd [Hp Es]]].
      apply (csubstitute_edge_sound lt C cget cadd Hl Sg s c f pairs id B Q Hf Hnd Hp Es). }
  destruct H as [s' [c' [r [E [B' [X [Q' R]]]]]]].
  exists s', c', r. split; [exact E|]. split; [split; assumption|]. split; assumption.
Qed.

(** ** The family (Mgr/OomFamily.v): the two recursors are its parameter, a cache
    that only serves what was added is part of the precondition *)

Definition cqrun_p lt C cget cadd (cap : nat) (p : (nat -> bool) * (nat -> bool)) :=
  cqrun_c lt C cget cadd cap (fst p) (snd p).
Definition cqpre {C : Type} cget cadd Sg (s : snap) (c : C) (k : cqcall) : Prop :=
  lossyC cget cadd /\ QInv C cget Sg s c /\ cqcall_ok Sg s k.

Lemma cqfam_sim : forall lt C cget cadd cap p s c k,
  sim C no_m2 cap 1 s (cqrun_p lt C cget cadd cap p s c k) (cqrun_u lt C cget cadd s c k).
Proof. intros. apply cqrun_sim. Qed.

Lemma cqfam_rs : forall lt C cget cadd Sg cap p s c k, cqpre cget cadd Sg s c k ->
  res_safe (QInv C cget Sg) extends Qedge s (cqrun_p lt C cget cadd cap p s c k).
Proof.
  intros lt C cget cadd Sg cap p s c k [Hl [[B Q] Hk]].
  apply (cqrun_c_safe lt C cget cadd Hl Sg cap (snd p) (fst p) s c k B Q Hk).
Qed.

Lemma cqfam_u_ok : forall lt C cget cadd Sg s c k, cqpre cget cadd Sg s c k ->
  exists s' c' r, cqrun_u lt C cget cadd s c k = Some (s', c', r) /\ cqcall_spec s k s' r.
Proof.
  intros lt C cget cadd Sg s c k [Hl [I Hk]].
  destruct (cqrun_u_sound lt C cget cadd Sg s c k Hl I Hk) as [s' [c' [r [E [_ [_ [_ V]]]]]]].
  exists s', c', r. split; assumption.
Qed.

Lemma cqfam_failed : forall C cget cadd Sg cap s (c : C) k s' c', cqpre cget cadd Sg s c k ->
  failed1 C (QInv C cget Sg) extends cap s s' c' -> cqfailed_ok cget Sg cap s s' c'.
Proof.
  intros C cget cadd Sg cap s c k s' c' [_ [[B _] _]] [I [X [G F]]].
  split; [exact I|]. split; [exact X|]. split; [apply (extends_intact_c s s' B X)|]. auto.
Qed.

(** *** never a wrong edge: a result is literally the result of the unbounded run *)
Theorem cq_never_wrong : forall lt C cget cadd cap par pin s c k s' c' r,
  cqrun_c lt C cget cadd cap par pin s c k = GOk s' c' r ->
  cqrun_u lt C cget cadd s c k = Some (s', c', r).
Proof.
  intros lt C cget cadd cap par pin.
  apply (fam_never_wrong (cqfam_sim lt C cget cadd) cap (par, pin)).
Qed.

(** *** retry: when the table of the unbounded run fits, the bounded run
    succeeds with exactly that result *)
Theorem cq_retry : forall lt C cget cadd cap par pin s c k su cu ru,
  cqrun_u lt C cget cadd s c k = Some (su, cu, ru) -> node_count su <= cap ->
  cqrun_c lt C cget cadd cap par pin s c k = GOk su cu ru.
Proof.
  intros lt C cget cadd cap par pin.
  apply (fam_retry (cqfam_sim lt C cget cadd) cap (par, pin)).
Qed.

(** *** monotone in the capacity, independent of the recursors *)
Theorem cq_monotone : forall lt C cget cadd cap cap' par par' pin pin' s c k s' c' r, cap <= cap' ->
  cqrun_c lt C cget cadd cap par pin s c k = GOk s' c' r ->
  cqrun_c lt C cget cadd cap' par' pin' s c k = GOk s' c' r.
Proof.
  intros lt C cget cadd cap cap' par par' pin pin'.
  apply (fam_monotone (cqfam_sim lt C cget cadd)
           cap cap' (par, pin) (par', pin')).
Qed.

(** *** ... hence the quantification / cofactor / substitution of the operands
    (C04), in a table in which everything that existed before is intact *)
Theorem cq_never_wrong_sem : forall lt C cget cadd Sg cap par pin s c k s' c' r,
  lossyC cget cadd -> QInv C cget Sg s c -> cqcall_ok Sg s k ->
  cqrun_c lt C cget cadd cap par pin s c k = GOk s' c' r ->
  QInv C cget Sg s' c' /\ intact_c s s' /\ ref_ok s' (eref r) /\ cqcall_spec s k s' r.
Proof.
  intros lt C cget cadd Sg cap par pin s c k s' c' r Hl I Hk E.
  destruct (fam_never_wrong_sem (cqfam_sim lt C cget cadd) (cqfam_rs lt C cget cadd Sg) (cqfam_u_ok lt C cget cadd Sg)
              cap (par, pin) s c k s' c' r (conj Hl (conj I Hk)) E) as [I' [X R]].
  split; [exact I'|]. split; [apply (extends_intact_c s s' (proj1 I) X) | exact R].
Qed.

(** *** the state after a failure *)
Theorem cq_safe : forall lt C cget cadd Sg cap par pin s c k s' c',
  lossyC cget cadd -> QInv C cget Sg s c -> cqcall_ok Sg s k ->
  cqrun_c lt C cget cadd cap par pin s c k = GOom s' c' ->
  cqfailed_ok cget Sg cap s s' c'.
Proof.
  intros lt C cget cadd Sg cap par pin s c k s' c' Hl I Hk.
  apply (fam_safe (cqfam_sim lt C cget cadd) (cqfam_rs lt C cget cadd Sg) (cqfam_failed C cget cadd Sg)
           cap (par, pin) s c k s' c' (conj Hl (conj I Hk))).
Qed.

(** *** no panic, no divergence *)
Theorem cq_no_panic : forall lt C cget cadd Sg cap par pin s c k,
  lossyC cget cadd -> QInv C cget Sg s c -> cqcall_ok Sg s k ->
  cqrun_c lt C cget cadd cap par pin s c k <> GStuck.
Proof.
  intros lt C cget cadd Sg cap par pin s c k Hl I Hk.
  apply (fam_no_panic (cqfam_rs lt C cget cadd Sg) cap (par, pin) s c k (conj Hl (conj I Hk))).
Qed.

(** *** exactness: the bounded run fails iff the table of the unbounded run
    does not fit *)
Theorem cq_exact : forall lt C cget cadd Sg cap par pin s c k,
  lossyC cget cadd -> QInv C cget Sg s c -> cqcall_ok Sg s k ->
  exists su cu ru, cqrun_u lt C cget cadd s c k = Some (su, cu, ru) /\
    cqcall_spec s k su ru /\
    (node_count su <= Nat.max cap (node_count s) ->
       cqrun_c lt C cget cadd cap par pin s c k = GOk su cu ru) /\
    (Nat.max cap (node_count s) < node_count su ->
       exists s' c', cqrun_c lt C cget cadd cap par pin s c k = GOom s' c' /\
                     cqfailed_ok cget Sg cap s s' c').
Proof.
  intros lt C cget cadd Sg cap par pin s c k Hl I Hk.
  exact (fam_exact (cqfam_sim lt C cget cadd) (cqfam_rs lt C cget cadd Sg) (cqfam_u_ok lt C cget cadd Sg)
           (cqfam_failed C cget cadd Sg) cap (par, pin) s c k (conj Hl (conj I Hk))).
Qed.

(** failing or not does not depend on the recursors *)
Theorem cq_outcome_recursor_indep : forall lt C cget cadd Sg cap par par' pin pin' s c k,
  lossyC cget cadd -> QInv C cget Sg s c -> cqcall_ok Sg s k ->
  gres_code (cqrun_c lt C cget cadd cap par pin s c k) =
  gres_code (cqrun_c lt C cget cadd cap par' pin' s c k).
Proof.
  intros lt C cget cadd Sg cap par par' pin pin' s c k Hl I Hk.
  apply (fam_recursor_indep (cqfam_sim lt C cget cadd) (cqfam_rs lt C cget cadd Sg) (cqfam_u_ok lt C cget cadd Sg)
           (cqfam_failed C cget cadd Sg) cap (par, pin) (par', pin') s c k (conj Hl (conj I Hk))).
Qed.

(** what [cqfailed_ok] / [intact_c] mean, spelled out: [intact_c_elim] of
    Mgr/OomBcddSafe.v applies to the third component *)
Theorem cq_failed_meaning : forall C (cget : C -> N -> list edge -> option edge) Sg cap s s' c',
  cqfailed_ok cget Sg cap s s' c' ->
  BcOK s' /\ QCacheOKC cget Sg s' c' /\ extends s s' /\
  s_handles s' = s_handles s /\
  (forall id nd, find_node s id = Some nd -> find_node s' id = Some nd) /\
  (forall e, ref_ok s (eref e) -> ref_ok s' (eref e) /\ forall k c0, semc s' k e c0 = semc s k e c0) /\
  (forall h, In h (s_handles s) -> forall c0, sem_edge s' (snd h) c0 = sem_edge s (snd h) c0) /\
  (forall id, find_node s id = None -> ~ reachable s' (handle_refs s') (RN id)) /\
  node_count s <= node_count s' /\ cap <= node_count s'.
Proof.
  intros C cget Sg cap s s' c' [[B Q] [X [N [G F]]]].
  destruct (intact_c_elim s s' N) as [A1 [_ [_ [_ [A5 [A6 [A7 [A8 _]]]]]]]].
  repeat (split; [assumption|]). assumption.
Qed.

(** ** The cache-less instances the correspondence run evaluates ([cq_run_nc] and
    [cq_quant_nc] / [cq_aquant_nc] / [cq_restrict_nc] / [cq_subst_nc] of
    Mgr/OomBcddQ.v): the hypotheses reduce to the two checkers [bcok_b] and
    [cqcall_ok_b] *)

(** the cache-less instance satisfies every cache invariant *)
Lemma qcacheokc_enc : forall Sg s, QCacheOKC enc_get Sg s tt.
Proof. intros Sg s. split; [apply enc_ok|]. intros code args r E. discriminate. Qed.

(** the registry in which the substitution object of call [k] is registered under its id *)
Definition cq_sg_of (k : cqcall) : N -> option (list (nat * edge)) :=
  match k with
  | CQSubst _ pairs id => csg_add (fun _ => None) id pairs
  | _ => fun _ => None
  end.

Lemma nat_nodup_b_spec : forall l, nat_nodup_b l = true -> NoDup l.
Proof.
  induction l as [|x r IH]; intros E; [constructor|].
  simpl in E. apply andb_true_iff in E. destruct E as [E1 E2]. constructor; [|apply IH; exact E2].
  intros Hin. apply negb_true_iff in E1.
  assert (Ex : existsb (Nat.eqb x) r = true) by (apply existsb_exists; exists x; split; [exact Hin | apply Nat.eqb_refl]).
  congruence.
Qed.

Theorem cqcall_ok_b_spec : forall s k, cqcall_ok_b s k = true -> cqcall_ok (cq_sg_of k) s k.
Proof.
  intros s k E. destruct k as [q f vars|q op f g vars|f vars|f pairs id]; simpl in E |- *;
    repeat (apply andb_true_iff in E; destruct E as [E ?]);
    repeat match goal with H : ref_ok_b _ _ = true |- _ => apply ref_ok_b_spec in H end; auto.
  split; [assumption|]. split; [apply nat_nodup_b_spec; assumption|]. split.
  - intros v r Hin. rewrite forallb_forall in H. specialize (H (v, r) Hin). simpl in H.
    apply andb_true_iff in H. destruct H as [Hv Hr]. apply Nat.ltb_lt in Hv. apply ref_ok_b_spec in Hr. auto.
  - unfold csg_add. rewrite N.eqb_refl. reflexivity.
Qed.

Theorem cq_nc_inv : forall Sg s, BcOK s -> QInv unit enc_get Sg s tt.
Proof. intros Sg s B. split; [exact B | apply qcacheokc_enc]. Qed.

Theorem cq_nc_exact : forall cap p s k, BcOK s -> cqcall_ok_b s k = true ->
  exists su ru, cqrun_u lt_none unit enc_get enc_add s tt k = Some (su, tt, ru) /\
    BcOK su /\ cqcall_spec s k su ru /\
    (node_count su <= Nat.max cap (node_count s) -> cq_run_nc cap p s k = GOk su tt ru) /\
    (Nat.max cap (node_count s) < node_count su ->
       exists s', cq_run_nc cap p s k = GOom s' tt /\ cqfailed_ok enc_get (cq_sg_of k) cap s s' tt).
Proof.
  intros cap p s k B Hk. apply cqcall_ok_b_spec in Hk.
  pose proof (cq_nc_inv (cq_sg_of k) s B) as I.
  destruct (cq_exact lt_none unit enc_get enc_add (cq_sg_of k) cap (fun _ => p) (fun _ => p) s tt k
              enc_lossy I Hk) as [su [[] [ru [E [V [A F]]]]]].
  destruct (cqrun_u_sound lt_none unit enc_get enc_add (cq_sg_of k) s tt k enc_lossy I Hk)
    as [s1 [c1 [r1 [E1 [[B1 _] _]]]]].
  rewrite E in E1. inversion E1; subst s1 c1 r1.
  exists su, ru. split; [exact E|]. split; [exact B1|]. split; [exact V|]. split; [exact A|].
  intros Hbig. destruct (F Hbig) as [s' [[] [Eb Fs]]]. exists s'. split; assumption.
Qed.

Theorem cq_nc_no_panic : forall cap p s k, BcOK s -> cqcall_ok_b s k = true ->
  cq_run_nc cap p s k <> GStuck.
Proof.
  intros cap p s k B Hk. apply cqcall_ok_b_spec in Hk.
  apply (cq_no_panic lt_none unit enc_get enc_add (cq_sg_of k) cap (fun _ => p) (fun _ => p) s tt k
           enc_lossy (cq_nc_inv (cq_sg_of k) s B) Hk).
Qed.
