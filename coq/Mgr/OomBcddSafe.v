(** * Out-of-memory behaviour of the BCDD apply algorithms (Mgr/OomBcdd.v), part 2

    Under the invariant of the C02 theorems for BCDDs ([BcOK], [CacheOKC],
    operands are valid edges, standard fuel):

    - [capply_*_c_safe]: the bounded algorithms never get stuck, and whatever
      they return - result or out-of-memory - the table they leave is a
      well-formed BCDD table extending the one they started from, with a correct
      cache;
    - [intact_c]: what "extension" means for the owner of a handle (complement
      edges: [semc]);
    - [coom_*]: the C14 statements for [capply_not_c], [capply_op_c] (all eight
      operators), [capply_ite_c], [cmk_var_cap]. *)

From Coq Require Import List NArith PArith Bool Arith Lia FMapPositive.
From OxiVerif Require Import DD.Table DD.TableProofs DD.Canon DD.Sem DD.Build DD.BuildProofs DD.PickInsert
  DD.Apply DD.ApplyProofs DD.ApplyBcdd DD.ApplyBcddProofs DD.ApplyBcddIte DD.ApplyBcddEval
  Mgr.Oom Mgr.OomProofs.
From OxiVerif Require Import Mgr.OomGen Mgr.OomGenProofs Mgr.OomBcdd Mgr.OomBcddProofs.
Import ListNotations.

(** ** What an extension preserves (complement edges) *)

Record intact_c (s s' : snap) : Prop := mkIntactC {
  (* handles, order, stored nodes unchanged; added nodes unreachable; live part unchanged *)
  ic_base : intact0 s s';
  (* same terminal *)
  ic_terms : s_terms s' = s_terms s;
  (* every valid edge stays valid and means the same function *)
  ic_sem : forall e, ref_ok s (eref e) ->
             ref_ok s' (eref e) /\ forall k c0, semc s' k e c0 = semc s k e c0;
  (* every handle has the same value under every assignment *)
  ic_handle_sem : forall h, In h (s_handles s) ->
             forall c0, sem_edge s' (snd h) c0 = sem_edge s (snd h) c0
}.

Theorem extends_intact_c : forall s s', BcOK s -> extends s s' -> intact_c s s'.
Proof.
  intros s s' B X. pose proof (bc_wf s B) as H. constructor.
  - apply (next_intact0 s s' H (next_of_extends s s' X)).
  - apply (ext_terms _ _ X).
  - intros e He. split; [apply (ext_ref_ok _ _ _ X He)|].
    intros k c0. apply (semc_extends s s' H X k e c0 He).
  - intros h Hh c0. unfold sem_edge. rewrite (ext_kind _ _ X), (bc_kind s B), (ext_nlevels _ _ X).
    f_equal. apply (semc_extends s s' H X). apply (wf_handles s H h Hh).
Qed.

Theorem intact_c_elim : forall s s', intact_c s s' ->
  s_handles s' = s_handles s /\
  s_v2l s' = s_v2l s /\ s_l2v s' = s_l2v s /\ s_terms s' = s_terms s /\
  (forall id nd, find_node s id = Some nd -> find_node s' id = Some nd) /\
  (forall e, ref_ok s (eref e) -> ref_ok s' (eref e) /\ forall k c0, semc s' k e c0 = semc s k e c0) /\
  (forall h, In h (s_handles s) -> forall c0, sem_edge s' (snd h) c0 = sem_edge s (snd h) c0) /\
  (forall id, find_node s id = None -> ~ reachable s' (handle_refs s') (RN id)) /\
  (forall r, reachable s' (handle_refs s') r <-> reachable s (handle_refs s) r).
Proof.
  intros s s' [[A [B1 B2] C0 F G] T D E0]. repeat (split; [assumption|]). assumption.
Qed.

Section Safe.
Variable lt : edge -> edge -> bool.
Variable C : Type.
Variable cget : C -> N -> list edge -> option edge.
Variable cadd : C -> N -> list edge -> edge -> C.
Hypothesis Hlossy : lossyC cget cadd.
Variable cap : nat.
Variable par : nat -> bool.

Definition CInv (s : snap) (c : C) : Prop := BcOK s /\ CacheOKC cget s c.
Definition Qedge (s : snap) (r : edge) : Prop := ref_ok s (eref r).

Notation RS := (res_safe CInv extends Qedge).
Notation FS := (fail_safe CInv extends).

(** what the C02 theorems say of an unbounded result, in the form of [safe_by_sim] *)
Lemma cresult_inv : forall s c res Phi, cresult_ok cget s c res Phi ->
  exists s1 c1 r1, res = Some (s1, c1, r1) /\ CInv s1 c1 /\ extends s s1 /\ Qedge s1 r1.
Proof.
  intros s c res Phi [s1 [c1 [r1 [E1 [B1 [X1 [O1 [D1 _]]]]]]]]. exists s1, c1, r1.
  split; [exact E1|]. split; [split; assumption|]. split; [exact X1 | apply (proj1 D1)].
Qed.

(** ** [capply_bin_c] *)

Lemma cbin_step_c_fs : forall op n p (rec : snap -> C -> edge -> edge -> cres_c C),
  (forall s c f g, BcOK s -> CacheOKC cget s c -> ref_ok s (eref f) -> ref_ok s (eref g) ->
     nlevels s - Nat.min (rlevel s (eref f)) (rlevel s (eref g)) < n -> RS s (rec s c f g)) ->
  forall s c f idf fnd g idg gnd,
    BcOK s -> CacheOKC cget s c -> ref_ok s (eref f) -> ref_ok s (eref g) ->
    eref f = RN idf -> find_node s idf = Some fnd ->
    eref g = RN idg -> find_node s idg = Some gnd ->
    nlevels s - Nat.min (nlevel fnd) (nlevel gnd) < S n ->
    FS s (cbin_step_c C cget cadd cap p rec s c op f fnd g gnd).
Proof.
  intros op n p rec IH s c f idf fnd g idg gnd B O Hf Hg Erf Ef Erg Eg Hfuel.
  pose proof (bc_wf s B) as H.
  pose proof (wf_level s H idf fnd Ef) as Hlf. pose proof (wf_level s H idg gnd Eg) as Hlg.
  destruct (denc_exists s f B Hf) as [phi Df]. destruct (denc_exists s g B Hg) as [psi Dg].
  unfold cbin_step_c. destruct (cget c (cop_code op) [f; g]); [exact I|].
  rewrite (wf_stored s H idf fnd Ef), (wf_stored s H idg gnd Eg).
  set (lvl := Nat.min (nlevel fnd) (nlevel gnd)) in *. cbv zeta.
  destruct (ccof2_ok s f idf fnd phi lvl B Df Erf Ef ltac:(lia)) as [ft [fe [Ecf [Dft [Dfe [Lft Lfe]]]]]].
  destruct (ccof2_ok s g idg gnd psi lvl B Dg Erg Eg ltac:(lia)) as [gt' [ge [Ecg [Dgt [Dge [Lgt Lge]]]]]].
  rewrite Ecf, Ecg.
  apply (gjoin2_safe C CInv extends extends_trans edge edge edge Qedge Qedge).
  - apply IH; auto; [apply (proj1 Dft) | apply (proj1 Dgt) | lia].
  - intros s1 c1 [B1 O1] X1.
    apply IH; auto; [apply (ext_ref_ok _ _ _ X1 (proj1 Dfe)) | apply (ext_ref_ok _ _ _ X1 (proj1 Dge))|].
    rewrite (ext_nlevels _ _ X1), (ext_rlevel _ _ _ X1 (proj1 Dfe)), (ext_rlevel _ _ _ X1 (proj1 Dge)). lia.
  - intros s2 c2 t e I2 X2. apply gfin_safe; [exact I2 | apply extends_refl].
Qed.

Theorem capply_bin_c_safe : forall op fuel s c f g,
  BcOK s -> CacheOKC cget s c -> ref_ok s (eref f) -> ref_ok s (eref g) ->
  nlevels s - Nat.min (rlevel s (eref f)) (rlevel s (eref g)) < fuel ->
  RS s (capply_bin_c lt C cget cadd cap par fuel s c op f g).
Proof.
  intros op. induction fuel as [|n IH]; intros s c f g B O Hf Hg Hfuel; [lia|].
  destruct (denc_exists s f B Hf) as [phi Df]. destruct (denc_exists s g B Hg) as [psi Dg].
  apply (safe_by_sim C no_m2 cap 1 CInv extends edge Qedge s _ _
           (capply_bin_sim lt C cget cadd cap par (S n) s c op f g)
           (cresult_inv s c _ _ (capply_bin_ok lt C cget cadd Hlossy op (S n) s c f g phi psi B O Df Dg Hfuel))).
  rewrite capply_bin_c_S.
  pose proof (cterminal_sound s op f g phi psi B Df Dg) as T.
  destruct (cterminal s op f g) as [r|fn gn|]; [exact I | | contradiction].
  destruct T as [idf [idg [Erf [Ef [Erg Eg]]]]].
  rewrite Erf, Erg, (rlevel_node s idf fn Ef), (rlevel_node s idg gn Eg) in Hfuel.
  destruct (lt f g).
  - apply (cbin_step_c_fs op n (par n) _ IH s c f idf fn g idg gn); auto.
  - apply (cbin_step_c_fs op n (par n) _ IH s c g idg gn f idf fn); auto. lia.
Qed.

(** [Ok(not_owned(r?))] *)
Lemma onot_c_safe : forall s r, RS s r -> RS s (onot_c C r).
Proof.
  intros s [s' c' x|s' c'|] H; simpl in *; auto.
Qed.

Theorem capply_op_c_safe : forall o fuel s c f g,
  BcOK s -> CacheOKC cget s c -> ref_ok s (eref f) -> ref_ok s (eref g) ->
  nlevels s - Nat.min (rlevel s (eref f)) (rlevel s (eref g)) < fuel ->
  RS s (capply_op_c lt C cget cadd cap par fuel s c o f g).
Proof.
  intros o fuel s c f g B O Hf Hg Hfuel.
  destruct o; unfold capply_op_c; try apply onot_c_safe; apply capply_bin_c_safe; auto.
Qed.

(** ** [capply_ite_c] *)

Lemma cite_step_c_fs : forall n p (rec : snap -> C -> edge -> edge -> edge -> cres_c C),
  (forall s c f g h, BcOK s -> CacheOKC cget s c ->
     ref_ok s (eref f) -> ref_ok s (eref g) -> ref_ok s (eref h) ->
     nlevels s - Nat.min (Nat.min (rlevel s (eref f)) (rlevel s (eref g))) (rlevel s (eref h)) < n ->
     RS s (rec s c f g h)) ->
  forall s c f idf fnd g idg gnd h idh hnd,
    BcOK s -> CacheOKC cget s c -> ref_ok s (eref f) -> ref_ok s (eref g) -> ref_ok s (eref h) ->
    eref f = RN idf -> find_node s idf = Some fnd ->
    eref g = RN idg -> find_node s idg = Some gnd ->
    eref h = RN idh -> find_node s idh = Some hnd ->
    nlevels s - Nat.min (Nat.min (nlevel fnd) (nlevel gnd)) (nlevel hnd) < S n ->
    FS s (cite_step_c C cget cadd cap p rec s c f fnd g gnd h hnd).
Proof.
  intros n p rec IH s c f idf fnd g idg gnd h idh hnd B O Hf Hg Hh Erf Ef Erg Eg Erh Eh Hfuel.
  pose proof (bc_wf s B) as H.
  pose proof (wf_level s H idf fnd Ef) as Hlf. pose proof (wf_level s H idg gnd Eg) as Hlg.
  pose proof (wf_level s H idh hnd Eh) as Hlh.
  destruct (denc_exists s f B Hf) as [phi Df]. destruct (denc_exists s g B Hg) as [psi Dg].
  destruct (denc_exists s h B Hh) as [theta Dh].
  unfold cite_step_c. destruct (cget c ccode_ite [f; g; h]); [exact I|].
  rewrite (wf_stored s H idf fnd Ef), (wf_stored s H idg gnd Eg), (wf_stored s H idh hnd Eh).
  set (lvl := Nat.min (Nat.min (nlevel fnd) (nlevel gnd)) (nlevel hnd)) in *. cbv zeta.
  destruct (ccof2_ok s f idf fnd phi lvl B Df Erf Ef ltac:(lia)) as [ft [fe [Ecf [Dft [Dfe [Lft Lfe]]]]]].
  destruct (ccof2_ok s g idg gnd psi lvl B Dg Erg Eg ltac:(lia)) as [gt' [ge [Ecg [Dgt [Dge [Lgt Lge]]]]]].
  destruct (ccof2_ok s h idh hnd theta lvl B Dh Erh Eh ltac:(lia)) as [ht [he [Ech [Dht [Dhe [Lht Lhe]]]]]].
  rewrite Ecf, Ecg, Ech.
  apply (gjoin2_safe C CInv extends extends_trans edge edge edge Qedge Qedge).
  - apply IH; auto; [apply (proj1 Dft) | apply (proj1 Dgt) | apply (proj1 Dht) | lia].
  - intros s1 c1 [B1 O1] X1.
    apply IH; auto; [apply (ext_ref_ok _ _ _ X1 (proj1 Dfe)) | apply (ext_ref_ok _ _ _ X1 (proj1 Dge))
                    | apply (ext_ref_ok _ _ _ X1 (proj1 Dhe))|].
    rewrite (ext_nlevels _ _ X1), (ext_rlevel _ _ _ X1 (proj1 Dfe)),
            (ext_rlevel _ _ _ X1 (proj1 Dge)), (ext_rlevel _ _ _ X1 (proj1 Dhe)). lia.
  - intros s2 c2 t e I2 X2. apply gfin_safe; [exact I2 | apply extends_refl].
Qed.

Theorem capply_ite_c_safe : forall fuel s c f g h,
  BcOK s -> CacheOKC cget s c -> ref_ok s (eref f) -> ref_ok s (eref g) -> ref_ok s (eref h) ->
  nlevels s - Nat.min (Nat.min (rlevel s (eref f)) (rlevel s (eref g))) (rlevel s (eref h)) < fuel ->
  RS s (capply_ite_c lt C cget cadd cap par fuel s c f g h).
Proof.
  induction fuel as [|n IH]; intros s c f g h B O Hf Hg Hh Hfuel; [lia|].
  destruct (denc_exists s f B Hf) as [phi Df]. destruct (denc_exists s g B Hg) as [psi Dg].
  destruct (denc_exists s h B Hh) as [theta Dh].
  apply (safe_by_sim C no_m2 cap 1 CInv extends edge Qedge s _ _
           (capply_ite_sim lt C cget cadd cap par (S n) s c f g h)
           (cresult_inv s c _ _
              (capply_ite_ok lt C cget cadd Hlossy (S n) s c f g h phi psi theta B O Df Dg Dh Hfuel))).
  clear phi psi theta Df Dg Dh.
  rewrite capply_ite_c_S.
  assert (Bin : forall o x y, ref_ok s (eref x) -> ref_ok s (eref y) ->
            nlevels s - Nat.min (rlevel s (eref x)) (rlevel s (eref y)) < S n ->
            FS s (capply_bin_c lt C cget cadd cap par (S n) s c o x y))
    by (intros; eapply res_fail_safe; apply capply_bin_c_safe; auto).
  assert (NBin : forall o x y, ref_ok s (eref x) -> ref_ok s (eref y) ->
            nlevels s - Nat.min (rlevel s (eref x)) (rlevel s (eref y)) < S n ->
            FS s (onot_c C (capply_bin_c lt C cget cadd cap par (S n) s c o x y)))
    by (intros; eapply res_fail_safe; apply onot_c_safe; apply capply_bin_c_safe; auto).
  assert (Hfg : nlevels s - Nat.min (rlevel s (eref f)) (rlevel s (eref g)) < S n) by lia.
  assert (Hfh : nlevels s - Nat.min (rlevel s (eref f)) (rlevel s (eref h)) < S n) by lia.
  destruct (ref_eqb (eref g) (eref h)).
  { destruct (Bool.eqb (etag g) (etag h)); [exact I | apply NBin; auto]. }
  destruct (ref_eqb (eref f) (eref g)).
  { destruct (Bool.eqb (etag f) (etag g)); [apply NBin; auto | apply Bin; auto]. }
  destruct (ref_eqb (eref f) (eref h)).
  { destruct (Bool.eqb (etag f) (etag h)); [apply Bin; auto | apply NBin; auto]. }
  destruct (cnode_total s f Hf) as [vf Vf]. destruct (cnode_total s g Hg) as [vg Vg].
  destruct (cnode_total s h Hh) as [vh Vh].
  rewrite Vf. destruct vf as [fnd|]; [|exact I].
  rewrite Vg, Vh. destruct vg as [gnd|], vh as [hnd|].
  - destruct (cnode_NVI s f fnd Vf) as [idf [Erf Ef]]. destruct (cnode_NVI s g gnd Vg) as [idg [Erg Eg]].
    destruct (cnode_NVI s h hnd Vh) as [idh [Erh Eh]].
    rewrite Erf, Erg, Erh, (rlevel_node s idf fnd Ef), (rlevel_node s idg gnd Eg),
            (rlevel_node s idh hnd Eh) in Hfuel.
    apply (cite_step_c_fs n (par n) _ IH s c f idf fnd g idg gnd h idh hnd); auto.
  - destruct (etag h); [apply Bin; auto | apply NBin; auto].
  - destruct (etag g); [apply Bin; auto | apply NBin; auto].
  - destruct (etag h); [apply Bin; auto | apply NBin; auto].
Qed.

End Safe.

(** ** The C14 statements for BCDDs *)

Definition CFUEL' (s : snap) : nat := S (nlevels s).

Section Top.
Variable lt : edge -> edge -> bool.
Variable C : Type.
Variable cget : C -> N -> list edge -> option edge.
Variable cadd : C -> N -> list edge -> edge -> C.
Hypothesis Hlossy : lossyC cget cadd.

(** the state after a failure *)
Definition cfailed_ok (cap : nat) (s s' : snap) (c' : C) : Prop :=
  BcOK s' /\ CacheOKC cget s' c' /\ extends s s' /\ intact_c s s' /\
  node_count s <= node_count s' /\ cap <= node_count s'.

Lemma cfailed_of : forall cap s s' c', BcOK s ->
  failed1 C (CInv C cget) extends cap s s' c' -> cfailed_ok cap s s' c'.
Proof.
  intros cap s s' c' B [[B' O'] [X G]].
  split; [exact B'|]. split; [exact O'|]. split; [exact X|].
  split; [apply (extends_intact_c s s' B X) | exact G].
Qed.

(** the outcome of a bounded run, given the table [su] of the unbounded run *)
Definition cexact (cap : nat) (s : snap) (rb : gres C edge) (su : snap) (cu : C) (ru : edge) : Prop :=
  (node_count su <= Nat.max cap (node_count s) -> rb = GOk su cu ru) /\
  (Nat.max cap (node_count s) < node_count su -> exists s' c', rb = GOom s' c' /\ cfailed_ok cap s s' c').

Lemma cexact_intro : forall cap s rb su cu ru, BcOK s ->
  res_safe (CInv C cget) extends Qedge s rb -> sim C no_m2 cap 1 s rb (Some (su, cu, ru)) ->
  cexact cap s rb su cu ru.
Proof.
  intros cap s rb su cu ru B.
  apply (run1_exact C edge (CInv C cget) extends Qedge (cfailed_ok cap s)). intros s' c'. apply (cfailed_of cap s s' c' B).
Qed.

(** *** never a wrong edge: a result is literally the result of the unbounded run *)

Theorem coom_never_wrong_not : forall s (c : C) f s' c' r,
  capply_not_c C s c f = GOk s' c' r -> capply_not C s c f = Some (s', c', r).
Proof. intros s c f s' c' r E. inversion E; subst. reflexivity. Qed.

Theorem coom_never_wrong_op : forall cap par o fuel s c f g s' c' r,
  capply_op_c lt C cget cadd cap par fuel s c o f g = GOk s' c' r ->
  capply_op lt C cget cadd fuel s c o f g = Some (s', c', r).
Proof.
  intros cap par o fuel s c f g s' c' r E.
  apply (sim_never_wrong C no_m2 cap 1 edge _ _ _ _ _ _ (capply_op_sim lt C cget cadd cap par o fuel s c f g) E).
Qed.

Theorem coom_never_wrong_ite : forall cap par fuel s c f g h s' c' r,
  capply_ite_c lt C cget cadd cap par fuel s c f g h = GOk s' c' r ->
  capply_ite lt C cget cadd fuel s c f g h = Some (s', c', r).
Proof.
  intros cap par fuel s c f g h s' c' r E.
  apply (sim_never_wrong C no_m2 cap 1 edge _ _ _ _ _ _ (capply_ite_sim lt C cget cadd cap par fuel s c f g h) E).
Qed.

(** ... hence the pointwise connective of the operands (C02), in a table in
    which everything that existed before is intact *)

Theorem coom_never_wrong_op_sem : forall cap par o fuel s c f g s' c' r,
  BcOK s -> CacheOKC cget s c -> ref_ok s (eref f) -> ref_ok s (eref g) -> CFUEL' s <= fuel ->
  capply_op_c lt C cget cadd cap par fuel s c o f g = GOk s' c' r ->
  BcOK s' /\ CacheOKC cget s' c' /\ intact_c s s' /\ ref_ok s' (eref r) /\
  forall c0, bchoice c0 -> exists x y,
    cvalue s f c0 x /\ cvalue s g c0 y /\ cvalue s' r c0 (eval_bop o x y).
Proof.
  intros cap par o fuel s c f g s' c' r B O Hf Hg Hfuel E.
  apply coom_never_wrong_op in E.
  destruct (capply_op_sound lt C cget cadd Hlossy o fuel s c f g B O Hf Hg Hfuel)
    as [s1 [c1 [r1 [E1 [B1 [X1 [O1 [R1 V1]]]]]]]].
  rewrite E in E1. inversion E1; subst s1 c1 r1.
  split; [exact B1|]. split; [exact O1|]. split; [apply (extends_intact_c s s' B X1)|]. auto.
Qed.

Theorem coom_never_wrong_ite_sem : forall cap par fuel s c f g h s' c' r,
  BcOK s -> CacheOKC cget s c -> ref_ok s (eref f) -> ref_ok s (eref g) -> ref_ok s (eref h) ->
  CFUEL' s <= fuel ->
  capply_ite_c lt C cget cadd cap par fuel s c f g h = GOk s' c' r ->
  BcOK s' /\ CacheOKC cget s' c' /\ intact_c s s' /\ ref_ok s' (eref r) /\
  forall c0, bchoice c0 -> exists x y z,
    cvalue s f c0 x /\ cvalue s g c0 y /\ cvalue s h c0 z /\ cvalue s' r c0 (if x then y else z).
Proof.
  intros cap par fuel s c f g h s' c' r B O Hf Hg Hh Hfuel E.
  apply coom_never_wrong_ite in E.
  destruct (capply_ite_sound lt C cget cadd Hlossy fuel s c f g h B O Hf Hg Hh Hfuel)
    as [s1 [c1 [r1 [E1 [B1 [X1 [O1 [R1 V1]]]]]]]].
  rewrite E in E1. inversion E1; subst s1 c1 r1.
  split; [exact B1|]. split; [exact O1|]. split; [apply (extends_intact_c s s' B X1)|]. auto.
Qed.

(** *** the safe-run facts in the form the statements below use *)

Lemma cop_rs : forall cap par o fuel s c f g,
  BcOK s -> CacheOKC cget s c -> ref_ok s (eref f) -> ref_ok s (eref g) -> CFUEL' s <= fuel ->
  res_safe (CInv C cget) extends Qedge s (capply_op_c lt C cget cadd cap par fuel s c o f g).
Proof.
  intros cap par o fuel s c f g B O Hf Hg Hfuel. unfold CFUEL' in Hfuel.
  apply (capply_op_c_safe lt C cget cadd Hlossy); auto. lia.
Qed.

Lemma cite_rs : forall cap par fuel s c f g h,
  BcOK s -> CacheOKC cget s c -> ref_ok s (eref f) -> ref_ok s (eref g) -> ref_ok s (eref h) ->
  CFUEL' s <= fuel ->
  res_safe (CInv C cget) extends Qedge s (capply_ite_c lt C cget cadd cap par fuel s c f g h).
Proof.
  intros cap par fuel s c f g h B O Hf Hg Hh Hfuel. unfold CFUEL' in Hfuel.
  apply (capply_ite_c_safe lt C cget cadd Hlossy); auto. lia.
Qed.

(** *** the state after a failure *)

Theorem coom_safe_op : forall cap par o fuel s c f g s' c',
  BcOK s -> CacheOKC cget s c -> ref_ok s (eref f) -> ref_ok s (eref g) -> CFUEL' s <= fuel ->
  capply_op_c lt C cget cadd cap par fuel s c o f g = GOom s' c' ->
  cfailed_ok cap s s' c'.
Proof.
  intros cap par o fuel s c f g s' c' B O Hf Hg Hfuel E.
  apply (cfailed_of cap s s' c' B).
  apply (run1_failed C edge _ _ Qedge cap s _ _ s' c' (cop_rs cap par o fuel s c f g B O Hf Hg Hfuel)
           (capply_op_sim lt C cget cadd cap par o fuel s c f g) E).
Qed.

Theorem coom_safe_ite : forall cap par fuel s c f g h s' c',
  BcOK s -> CacheOKC cget s c -> ref_ok s (eref f) -> ref_ok s (eref g) -> ref_ok s (eref h) ->
  CFUEL' s <= fuel ->
  capply_ite_c lt C cget cadd cap par fuel s c f g h = GOom s' c' ->
  cfailed_ok cap s s' c'.
Proof.
  intros cap par fuel s c f g h s' c' B O Hf Hg Hh Hfuel E.
  apply (cfailed_of cap s s' c' B).
  apply (run1_failed C edge _ _ Qedge cap s _ _ s' c' (cite_rs cap par fuel s c f g h B O Hf Hg Hh Hfuel)
           (capply_ite_sim lt C cget cadd cap par fuel s c f g h) E).
Qed.

(** negation is a tag flip: it cannot fail and leaves the table untouched *)
Theorem coom_not_total : forall s (c : C) f,
  capply_not_c C s c f = GOk s c (enot f) /\ capply_not C s c f = Some (s, c, enot f).
Proof. intros. split; reflexivity. Qed.

(** *** no panic, no divergence *)

Theorem coom_no_panic_op : forall cap par o fuel s c f g,
  BcOK s -> CacheOKC cget s c -> ref_ok s (eref f) -> ref_ok s (eref g) -> CFUEL' s <= fuel ->
  capply_op_c lt C cget cadd cap par fuel s c o f g <> GStuck.
Proof.
  intros. eapply res_safe_not_stuck. apply cop_rs; eassumption.
Qed.

Theorem coom_no_panic_ite : forall cap par fuel s c f g h,
  BcOK s -> CacheOKC cget s c -> ref_ok s (eref f) -> ref_ok s (eref g) -> ref_ok s (eref h) ->
  CFUEL' s <= fuel ->
  capply_ite_c lt C cget cadd cap par fuel s c f g h <> GStuck.
Proof.
  intros. eapply res_safe_not_stuck. apply cite_rs; eassumption.
Qed.

(** *** retry: when the table of the unbounded run fits, the bounded run
    succeeds with exactly that result *)

Theorem coom_retry_op : forall cap par o fuel s c f g su cu ru,
  capply_op lt C cget cadd fuel s c o f g = Some (su, cu, ru) -> node_count su <= cap ->
  capply_op_c lt C cget cadd cap par fuel s c o f g = GOk su cu ru.
Proof.
  intros cap par o fuel s c f g su cu ru E. apply (sim1_retry C edge cap s). rewrite <- E. apply capply_op_sim.
Qed.

Theorem coom_retry_ite : forall cap par fuel s c f g h su cu ru,
  capply_ite lt C cget cadd fuel s c f g h = Some (su, cu, ru) -> node_count su <= cap ->
  capply_ite_c lt C cget cadd cap par fuel s c f g h = GOk su cu ru.
Proof.
  intros cap par fuel s c f g h su cu ru E. apply (sim1_retry C edge cap s). rewrite <- E. apply capply_ite_sim.
Qed.

(** *** monotone in the capacity, independent of the recursor *)

Theorem coom_monotone_op : forall cap cap' par par' o fuel s c f g s' c' r, cap <= cap' ->
  capply_op_c lt C cget cadd cap par fuel s c o f g = GOk s' c' r ->
  capply_op_c lt C cget cadd cap' par' fuel s c o f g = GOk s' c' r.
Proof.
  intros cap cap' par par' o fuel s c f g s' c' r Hle.
  apply (sim1_monotone C edge cap cap' s _ _ (capply_op lt C cget cadd fuel s c o f g) s' c' r Hle); apply capply_op_sim.
Qed.

Theorem coom_monotone_ite : forall cap cap' par par' fuel s c f g h s' c' r, cap <= cap' ->
  capply_ite_c lt C cget cadd cap par fuel s c f g h = GOk s' c' r ->
  capply_ite_c lt C cget cadd cap' par' fuel s c f g h = GOk s' c' r.
Proof.
  intros cap cap' par par' fuel s c f g h s' c' r Hle.
  apply (sim1_monotone C edge cap cap' s _ _ (capply_ite lt C cget cadd fuel s c f g h) s' c' r Hle); apply capply_ite_sim.
Qed.

(** *** exactness *)

Theorem coom_exact_op : forall cap par o fuel s c f g,
  BcOK s -> CacheOKC cget s c -> ref_ok s (eref f) -> ref_ok s (eref g) -> CFUEL' s <= fuel ->
  exists su cu ru, capply_op lt C cget cadd fuel s c o f g = Some (su, cu, ru) /\
    (forall c0, bchoice c0 -> exists x y,
       cvalue s f c0 x /\ cvalue s g c0 y /\ cvalue su ru c0 (eval_bop o x y)) /\
    cexact cap s (capply_op_c lt C cget cadd cap par fuel s c o f g) su cu ru.
Proof.
  intros cap par o fuel s c f g B O Hf Hg Hfuel.
  destruct (capply_op_sound lt C cget cadd Hlossy o fuel s c f g B O Hf Hg Hfuel)
    as [su [cu [ru [Eu [_ [_ [_ [_ V]]]]]]]].
  exists su, cu, ru. split; [exact Eu|]. split; [exact V|].
  apply cexact_intro; [exact B | apply cop_rs; auto |]. rewrite <- Eu. apply capply_op_sim.
Qed.

Theorem coom_exact_ite : forall cap par fuel s c f g h,
  BcOK s -> CacheOKC cget s c -> ref_ok s (eref f) -> ref_ok s (eref g) -> ref_ok s (eref h) ->
  CFUEL' s <= fuel ->
  exists su cu ru, capply_ite lt C cget cadd fuel s c f g h = Some (su, cu, ru) /\
    (forall c0, bchoice c0 -> exists x y z,
       cvalue s f c0 x /\ cvalue s g c0 y /\ cvalue s h c0 z /\ cvalue su ru c0 (if x then y else z)) /\
    cexact cap s (capply_ite_c lt C cget cadd cap par fuel s c f g h) su cu ru.
Proof.
  intros cap par fuel s c f g h B O Hf Hg Hh Hfuel.
  destruct (capply_ite_sound lt C cget cadd Hlossy fuel s c f g h B O Hf Hg Hh Hfuel)
    as [su [cu [ru [Eu [_ [_ [_ [_ V]]]]]]]].
  exists su, cu, ru. split; [exact Eu|]. split; [exact V|].
  apply cexact_intro; [exact B | apply cite_rs; auto |]. rewrite <- Eu. apply capply_ite_sim.
Qed.

(** failing or not does not depend on the recursor *)
Theorem coom_outcome_recursor_indep_op : forall cap par par' o fuel s c f g,
  BcOK s -> CacheOKC cget s c -> ref_ok s (eref f) -> ref_ok s (eref g) -> CFUEL' s <= fuel ->
  gres_code (capply_op_c lt C cget cadd cap par fuel s c o f g) =
  gres_code (capply_op_c lt C cget cadd cap par' fuel s c o f g).
Proof.
  intros cap par par' o fuel s c f g B O Hf Hg Hfuel.
  destruct (coom_exact_op cap par o fuel s c f g B O Hf Hg Hfuel) as [su [cu [ru [E [_ X]]]]].
  destruct (coom_exact_op cap par' o fuel s c f g B O Hf Hg Hfuel) as [su' [cu' [ru' [E' [_ X']]]]].
  rewrite E in E'. inversion E'; subst su' cu' ru'. exact (exact1_code C edge _ _ cap s _ _ su cu ru X X').
Qed.

Theorem coom_outcome_recursor_indep_ite : forall cap par par' fuel s c f g h,
  BcOK s -> CacheOKC cget s c -> ref_ok s (eref f) -> ref_ok s (eref g) -> ref_ok s (eref h) ->
  CFUEL' s <= fuel ->
  gres_code (capply_ite_c lt C cget cadd cap par fuel s c f g h) =
  gres_code (capply_ite_c lt C cget cadd cap par' fuel s c f g h).
Proof.
  intros cap par par' fuel s c f g h B O Hf Hg Hh Hfuel.
  destruct (coom_exact_ite cap par fuel s c f g h B O Hf Hg Hh Hfuel) as [su [cu [ru [E [_ X]]]]].
  destruct (coom_exact_ite cap par' fuel s c f g h B O Hf Hg Hh Hfuel) as [su' [cu' [ru' [E' [_ X']]]]].
  rewrite E in E'. inversion E'; subst su' cu' ru'. exact (exact1_code C edge _ _ cap s _ _ su cu ru X X').
Qed.

End Top.

(** ** Variable creation: one insertion.  On failure no table is returned: the
    manager is untouched. *)

Theorem coom_var_exact : forall cap s v neg, BcOK s -> v < nlevels s ->
  exists s' r, cmk_var s v neg = Some (s', r) /\ BcOK s' /\ extends s s' /\ ref_ok s' (eref r) /\
    (forall a, cbfun_of s' r a = xorb neg (var_s v a)) /\
    (node_count s' <= Nat.max cap (node_count s) -> cmk_var_cap cap s v neg = Some (Some (s', r))) /\
    (Nat.max cap (node_count s) < node_count s' ->
       cmk_var_cap cap s v neg = Some None /\ cap <= node_count s).
Proof.
  intros cap s v neg B Hv.
  destruct (cmk_var_bfun s v neg B Hv) as [s' [r [Ev [B' [X [R V]]]]]].
  exists s', r. split; [exact Ev|]. split; [exact B'|]. split; [exact X|]. split; [exact R|].
  split; [exact V|].
  apply (leaf1_exact edge cap s). rewrite <- Ev. apply cmk_var_cap_sim.
Qed.

Theorem coom_var_never_wrong : forall cap s v neg s' r,
  cmk_var_cap cap s v neg = Some (Some (s', r)) -> cmk_var s v neg = Some (s', r).
Proof.
  intros cap s v neg s' r. apply (leaf1_never_wrong edge cap s), cmk_var_cap_sim.
Qed.
