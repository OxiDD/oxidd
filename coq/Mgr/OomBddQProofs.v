(** * Out-of-memory behaviour of quantification / apply-and-quantify / restrict /
      substitute of the plain BDD kind (Mgr/OomBddQ.v), part 1

    Facts that need no invariant (every table, cache, fuel, capacity, recursor
    [par] / [pin], operand order): [*_sim] - when the bounded algorithm returns
    [GOk s' c' r] the unbounded algorithm of DD/Quant.v returns literally
    [Some (s', c', r)] and at most [cap] nodes are stored unless nothing was
    inserted; when it returns [GOom s' c'] no node has disappeared and the store
    is full; when the unbounded algorithm returns a table that fits, the
    bounded one returns exactly that result.  The invariant-dependent part is
    in Mgr/OomBddQSafe.v. *)

From Coq Require Import List NArith PArith Bool Arith Lia FMapPositive.
From OxiVerif Require Import DD.Table DD.TableProofs DD.Sem DD.Build DD.BuildProofs
  DD.Apply DD.Quant Mgr.Oom Mgr.OomProofs.
From OxiVerif Require Import Mgr.OomGen Mgr.OomGenProofs Mgr.OomBcddProofs Mgr.OomBddQ.
Import ListNotations.

Section Sim.
Variable gt : ref -> ref -> bool.
Variable C : Type.
Variable cget : C -> N -> list ref -> option ref.
Variable cadd : C -> N -> list ref -> ref -> C.
Variable cap : nat.

Notation SIM := (sim C no_m2 cap 1).

(** ** The algorithms of Mgr/Oom.v as [gres] computations *)

Lemma gof_sim : forall s (rb : res C) ru,
  OomProofs.refines C cap s rb ru -> OomProofs.fits C cap s ru rb -> SIM s (gof rb) ru.
Proof.
  intros s rb ru A B. split.
  - destruct rb as [s' c' r|s' c'|]; simpl in *; unfold no_m2.
    + destruct A as [-> Hc]. split; [reflexivity | lia].
    + lia.
    + exact I.
  - destruct ru as [[[s' c'] r]|]; simpl in *; [|exact I]. unfold no_m2.
    destruct B as [Hc Hf]. split; [lia|]. intros W. rewrite Hf by lia. reflexivity.
Qed.

Lemma gof_not_sim : forall par fuel s c f,
  SIM s (gof (apply_not_c C cget cadd cap par fuel s c f)) (apply_not C cget cadd fuel s c f).
Proof. intros. apply gof_sim; [apply apply_not_refines | apply apply_not_fits]. Qed.

Lemma gof_bin_sim : forall par fuel s c op f g,
  SIM s (gof (apply_bin_c gt C cget cadd cap par fuel s c op f g)) (apply_bin gt C cget cadd fuel s c op f g).
Proof. intros. apply gof_sim; [apply apply_bin_refines | apply apply_bin_fits]. Qed.

Lemma gof_ite_sim : forall par fuel s c f g h,
  SIM s (gof (apply_ite_c gt C cget cadd cap par fuel s c f g h)) (apply_ite gt C cget cadd fuel s c f g h).
Proof. intros. apply gof_sim; [apply apply_ite_refines | apply apply_ite_fits]. Qed.

Lemma gfalse_sim : forall s c,
  SIM s (gfalse C s c) (match term_of s false with Some t => Some (s, c, RT t) | None => None end).
Proof. intros s c. unfold gfalse. destruct (term_of s false); [apply sim_here | apply sim_stuck]. Qed.

(** [reduce(..)?] + cache insertion *)
Lemma qfin_sim : forall s2 c2 lvl t e (kc : edge -> C),
  SIM s2 (gfin s2 c2 (mk_node_cap cap s2 lvl [E t; E e]) kc (fun h => eref h))
         (ufin (mk_node s2 lvl [E t; E e]) kc (fun h => eref h)).
Proof. intros. apply gfin_sim. apply mk_node_leaf. exact no_m2_terms. Qed.

(** ** The walks

    At the two recursive calls [gjoin2_sim] applies as it stands: [ujoin2] (and
    [ubind], [ufin]) unfold to the nested matches the unbounded algorithm is
    written with. *)

Theorem quant_sim : forall par pin fuel s c q f vars,
  SIM s (quant_c gt C cget cadd cap par pin fuel s c q f vars) (quant_rec gt C cget cadd fuel s c q f vars).
Proof.
  intros par pin. induction fuel as [|n IH]; intros s c q f vars; [apply sim_stuck|].
  cbn [quant_rec quant_c]. destruct f as [t|fid].
  { destruct (negb (is_unique q) || _); [apply sim_here | apply gfalse_sim]. }
  destruct (find_node s fid) as [fnode|]; [|apply sim_stuck].
  destruct (if is_unique q then Some vars else _) as [[tv|vid]|]; [apply sim_here | | apply sim_stuck].
  destruct (find_node s vid) as [vnode|]; [|apply sim_stuck].
  destruct (is_unique q && _); [apply gfalse_sim|].
  destruct (cget c (qcode q) _); [apply sim_here|].
  destruct (nchildren fnode) as [|ft [|fe [|x r]]]; try apply sim_stuck.
  destruct (if Nat.eqb (nstored vnode) (nstored fnode) then _ else _) as [vt|]; [|apply sim_stuck].
  apply gjoin2_sim; [apply IH | intros; apply IH |].
  intros s2 c2 t e. destruct (Nat.eqb (nstored fnode) (nstored vnode)).
  - apply gbind_sim; [apply gof_bin_sim | intros; apply sim_here].
  - apply qfin_sim.
Qed.

Theorem restrict_sim : forall par fuel s c f vars,
  SIM s (restrict_c C cget cadd cap par fuel s c f vars) (restrict C cget cadd fuel s c f vars).
Proof.
  intros par. induction fuel as [|n IH]; intros s c f vars; [apply sim_stuck|].
  cbn [restrict restrict_c]. destruct f as [t|fid]; [apply sim_here|].
  destruct vars as [tv|vid]; [apply sim_here|].
  destruct (find_node s fid) as [fnode|]; [|apply sim_stuck].
  destruct (find_node s vid) as [vnode|]; [|apply sim_stuck].
  destruct (restrict_inner _ s (RN fid) fnode (nstored fnode) (RN vid) vnode) as [[r|vars' f' fnode']|];
    [apply sim_here | | apply sim_stuck].
  destruct (cget c code_restrict _); [apply sim_here|].
  destruct (nchildren fnode') as [|ft [|fe [|x r]]]; try apply sim_stuck.
  apply gjoin2_sim; [apply IH | intros; apply IH | intros; apply qfin_sim].
Qed.

Theorem substitute_sim : forall par pin fuel s c f subst id,
  SIM s (substitute_c gt C cget cadd cap par pin fuel s c f subst id)
        (substitute gt C cget cadd fuel s c f subst id).
Proof.
  intros par pin. induction fuel as [|n IH]; intros s c f subst id; [apply sim_stuck|].
  cbn [substitute substitute_c]. destruct f as [t|fid]; [apply sim_here|].
  destruct (find_node s fid) as [fnode|]; [|apply sim_stuck].
  destruct (Nat.leb (length subst) (nstored fnode)); [apply sim_here|].
  destruct (cget c (code_subst id) _); [apply sim_here|].
  destruct (nchildren fnode) as [|ft [|fe [|x r]]]; try apply sim_stuck.
  apply gjoin2_sim; [apply IH | intros; apply IH |].
  intros s2 c2 t e. destruct (nth_error subst (nstored fnode)) as [r|]; [|apply sim_stuck].
  apply gbind_sim; [apply gof_ite_sim | intros; apply sim_here].
Qed.

Theorem apply_quant_sim : forall par pin fuel s c q op f g vars,
  SIM s (apply_quant_c gt C cget cadd cap par pin fuel s c q op f g vars)
        (apply_quant gt C cget cadd fuel s c q op f g vars).
Proof.
  intros par pin. induction fuel as [|n IH]; intros s c q op f g vars; [apply sim_stuck|].
  cbn [apply_quant apply_quant_c].
  destruct (terminal_bin gt s op f g) as [h|h|o a b|]; [apply quant_sim | | | apply sim_stuck].
  { apply gbind_sim; [apply gof_not_sim | intros; apply quant_sim]. }
  destruct (inner s a) as [fnode|]; [|apply sim_stuck].
  destruct (inner s b) as [gnode|]; [|apply sim_stuck].
  destruct (if is_unique q then Some vars else _) as [[tv|vid]|]; [apply gof_bin_sim | | apply sim_stuck].
  destruct (find_node s vid) as [vnode|]; [|apply sim_stuck].
  destruct (Nat.ltb (nstored vnode) _ && is_unique q); [apply gfalse_sim|].
  destruct (Nat.ltb (nstored vnode) _); [apply gof_bin_sim|].
  destruct (cget c (aqcode q op) _); [apply sim_here|].
  destruct (if Nat.eqb (nstored vnode) _ then _ else _) as [vt|]; [|apply sim_stuck].
  destruct (if Nat.leb (nstored fnode) (nstored gnode) then _ else _) as [[ft fe]|]; [|apply sim_stuck].
  destruct (if Nat.leb (nstored gnode) (nstored fnode) then _ else _) as [[gt' ge]|]; [|apply sim_stuck].
  apply gjoin2_sim; [apply IH | intros; apply IH |].
  intros s2 c2 t e. destruct (Nat.eqb _ (nstored vnode)).
  - apply gbind_sim; [apply gof_bin_sim | intros; apply sim_here].
  - apply qfin_sim.
Qed.

(** ** [substitute_prepare]: the cache is passed through *)

Definition with_cache {R : Type} (c : C) (u : option (snap * R)) : option (snap * C * R) :=
  match u with Some (s', x) => Some (s', c, x) | None => None end.

Lemma prepare_fill_sim : forall slots s c level,
  SIM s (prepare_fill_c C cap s c slots level) (with_cache c (prepare_fill s slots level)).
Proof.
  induction slots as [|[e|] rest IH]; intros s c level.
  - apply sim_here.
  - cbn [prepare_fill_c prepare_fill].
    replace (with_cache c match prepare_fill s rest (S level) with
                          | Some (s', l) => Some (s', e :: l) | None => None end)
      with (ubind (with_cache c (prepare_fill s rest (S level))) (fun s' c' l => Some (s', c', e :: l)))
      by (destruct (prepare_fill s rest (S level)) as [[s' l]|]; reflexivity).
    apply gbind_sim; [apply IH | intros; apply sim_here].
  - cbn [prepare_fill_c prepare_fill].
    destruct (term_of s true) as [t1|]; [|apply sim_stuck].
    destruct (term_of s false) as [t0|]; [|apply sim_stuck].
    replace (with_cache c (let '(s1, e) := get_or_insert s level [E (RT t1); E (RT t0)] in
                           match prepare_fill s1 rest (S level) with
                           | Some (s', l) => Some (s', eref e :: l) | None => None end))
      with (ubind (ufin (get_or_insert s level [E (RT t1); E (RT t0)]) (fun _ => c) (fun e => eref e))
              (fun s1 c1 e => ubind (with_cache c1 (prepare_fill s1 rest (S level)))
                                (fun s' c' l => Some (s', c', e :: l)))).
    2:{ unfold ufin. destruct (get_or_insert s level _) as [s1 e]. simpl.
        destruct (prepare_fill s1 rest (S level)) as [[s' l]|]; reflexivity. }
    apply gbind_sim.
    + apply gfin_sim. apply goi_leaf. exact no_m2_terms.
    + intros s1 c1 e. apply gbind_sim; [apply IH | intros; apply sim_here].
Qed.

Lemma substitute_prepare_sim : forall s c pairs,
  SIM s (substitute_prepare_c C cap s c pairs) (with_cache c (substitute_prepare s pairs)).
Proof.
  intros s c pairs. unfold substitute_prepare_c, substitute_prepare.
  destruct (prepare_slots s pairs []) as [slots|]; [apply prepare_fill_sim | apply sim_stuck].
Qed.

(** ** The entry points and [qrun_c] *)

Lemma substitute_edge_U : forall s c f pairs id,
  substitute_edge gt C cget cadd s c f pairs id =
  ubind (with_cache c (substitute_prepare s pairs))
    (fun s0 c0 subst => substitute gt C cget cadd (S (nlevels s0)) s0 c0 f subst id).
Proof.
  intros. unfold substitute_edge. destruct (substitute_prepare s pairs) as [[s0 sv]|]; reflexivity.
Qed.

Theorem qrun_sim : forall par pin s c k,
  SIM s (qrun_c gt C cget cadd cap par pin s c k) (qrun_u gt C cget cadd s c k).
Proof.
  intros par pin s c [q f vars|q op f g vars|f vars|f pairs id]; cbn [qrun_c qrun_u].
  - apply quant_sim.
  - apply apply_quant_sim.
  - apply restrict_sim.
  - rewrite substitute_edge_U. unfold substitute_edge_c.
    apply gbind_sim; [apply substitute_prepare_sim | intros; apply substitute_sim].
Qed.

End Sim.
