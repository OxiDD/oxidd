(** * Out-of-memory behaviour of quantification / apply-and-quantify / restrict /
      substitute of the plain BDD kind (Mgr/OomBddQ.v), part 2

    Under the invariant of the C04 theorems ([BddOK], the cache invariant
    [QCacheOK] of DD/QuantLemmas.v, operands are valid references):

    - the apply algorithms of Mgr/Oom.v, when they FAIL, leave a cache that
      only gained entries with the operator codes of the apply algorithms
      ([cfr]; for a result this is [apply_*_frame] of DD/QuantLemmas.v) - so the
      quantification cache invariant survives a failed inner call;
    - [*_c_safe]: the bounded algorithms never get stuck, and whatever they
      return - result or out-of-memory - the table they leave is a well-formed
      BDD table extending the one they started from, with a correct cache. *)

From Coq Require Import List NArith PArith Bool Arith Lia FMapPositive.
From OxiVerif Require Import DD.Table DD.TableProofs DD.Sem DD.Build DD.BuildProofs
  DD.Apply DD.ApplyProofs DD.Quant DD.QuantLemmas DD.QuantProofs DD.RestrictProofs DD.SubstProofs
  DD.ApplyQuantProofs Mgr.Oom Mgr.OomProofs Mgr.OomSafe.
From OxiVerif Require Import Mgr.OomGen Mgr.OomGenProofs Mgr.OomBcddProofs Mgr.OomBddQ Mgr.OomBddQProofs.
Import ListNotations.

Section Safe.
Variable gt : ref -> ref -> bool.
Variable C : Type.
Variable cget : C -> N -> list ref -> option ref.
Variable cadd : C -> N -> list ref -> ref -> C.
Hypothesis Hlossy : lossy cget cadd.
(** registry of substitution objects (DD/QuantLemmas.v) *)
Variable Sg : N -> option (list (nat * ref)).
Variable cap : nat.

Notation QOK := (QCacheOK cget Sg).
Notation sf := (serves_from cget).

(** ** A failed apply algorithm only added apply entries to the cache *)

Definition cfr (c : C) (r : res C) : Prop :=
  match r with
  | ROk _ c' _ => sf c c'
  | ROom _ c' => sf c c'
  | RStuck => True
  end.

Lemma join2_cfr : forall p c r1 run2 fin,
  cfr c r1 -> (forall s1 c1, cfr c1 (run2 s1 c1)) -> (forall s2 c2 t e, cfr c2 (fin s2 c2 t e)) ->
  cfr c (join2 p r1 run2 fin).
Proof.
  intros p c r1 run2 fin H1 H2 H3. unfold join2.
  destruct r1 as [s1 c1 t|s1 c1|]; simpl in H1; [| |exact I].
  - specialize (H2 s1 c1). destruct (run2 s1 c1) as [s2 c2 e|s2 c2|]; simpl in H2; [| |exact I].
    + specialize (H3 s2 c2 t e). destruct (fin s2 c2 t e) as [s3 c3 r|s3 c3|]; simpl in *; [| |exact I];
        (eapply sf_trans; [exact H1|]; eapply sf_trans; [exact H2 | exact H3]).
    + simpl. eapply sf_trans; eauto.
  - destruct p; [|exact H1]. specialize (H2 s1 c1).
    destruct (run2 s1 c1) as [s2 c2 e|s2 c2|]; simpl in *; [| |exact I]; eapply sf_trans; eauto.
Qed.

Lemma finish_cfr : forall lvl code args s2 c2 t e, (code <= 9)%N ->
  cfr c2 (finish C cadd cap lvl code args s2 c2 t e).
Proof.
  intros lvl code args s2 c2 t e Hk. unfold finish.
  destruct (mk_node_cap cap s2 lvl [E t; E e]) as [[s3 h]|]; simpl.
  - apply (sf_add C cget cadd Hlossy). exact Hk.
  - apply sf_refl.
Qed.

Lemma cfr_here : forall s c r, cfr c (ROk s c r).
Proof. intros. simpl. apply sf_refl. Qed.

Lemma apply_not_c_cfr : forall par fuel s c f, cfr c (apply_not_c C cget cadd cap par fuel s c f).
Proof.
  intros par. induction fuel as [|n IH]; intros s c f; [exact I|].
  rewrite apply_not_c_S. destruct f as [t|id].
  - destruct (view s (RT t)) as [[|b]|]; try exact I.
    destruct (term_of s (negb b)); [apply cfr_here | exact I].
  - destruct (find_node s id) as [nd|]; [|exact I].
    destruct (cget c code_not [RN id]); [apply cfr_here|].
    destruct (nchildren nd) as [|ft [|fe [|x r]]]; try exact I.
    apply join2_cfr; [apply IH | intros; apply IH | intros; apply finish_cfr; unfold code_not; lia].
Qed.

Lemma apply_bin_c_cfr : forall par fuel s c op f g, cfr c (apply_bin_c gt C cget cadd cap par fuel s c op f g).
Proof.
  intros par. induction fuel as [|n IH]; intros s c op f g; [exact I|].
  rewrite apply_bin_c_S.
  destruct (terminal_bin gt s op f g) as [r|r|o a b|]; [apply cfr_here | apply apply_not_c_cfr | | exact I].
  destruct (cget c (op_code o) [a; b]); [apply cfr_here|].
  destruct (inner s f) as [fnode|]; [|exact I]. destruct (inner s g) as [gnode|]; [|exact I].
  cbv zeta.
  destruct (cof2 f fnode _) as [[ft fe]|]; [|exact I]. destruct (cof2 g gnode _) as [[gt' ge]|]; [|exact I].
  apply join2_cfr; [apply IH | intros; apply IH | intros; apply finish_cfr; apply op_code_le].
Qed.

Lemma apply_ite_c_cfr : forall par fuel s c f g h, cfr c (apply_ite_c gt C cget cadd cap par fuel s c f g h).
Proof.
  intros par. induction fuel as [|n IH]; intros s c f g h; [exact I|].
  rewrite apply_ite_c_S.
  destruct (ref_eqb g h); [apply cfr_here|].
  destruct (ref_eqb f g); [apply apply_bin_c_cfr|].
  destruct (ref_eqb f h); [apply apply_bin_c_cfr|].
  destruct (view s f) as [[|bf]|]; [| apply cfr_here | exact I].
  destruct (view s g) as [[|[]]|]; destruct (view s h) as [[|[]]|];
    try exact I; try apply apply_bin_c_cfr; try apply apply_not_c_cfr; try apply cfr_here.
  destruct (cget c code_ite [f; g; h]); [apply cfr_here|].
  destruct (inner s f) as [fnode|]; [|exact I]. destruct (inner s g) as [gnode|]; [|exact I].
  destruct (inner s h) as [hnode|]; [|exact I]. cbv zeta.
  destruct (cof2 f fnode _) as [[ft fe]|]; [|exact I]. destruct (cof2 g gnode _) as [[gt' ge]|]; [|exact I].
  destruct (cof2 h hnode _) as [[ht he]|]; [|exact I].
  apply join2_cfr; [apply IH | intros; apply IH | intros; apply finish_cfr; unfold code_ite; lia].
Qed.

(** ** Never stuck; the state after a result or a failure *)

Definition QInv (s : snap) (c : C) : Prop := BddOK s /\ QOK s c.
Definition Qref (s : snap) (r : ref) : Prop := ref_ok s r.

Notation RS := (res_safe QInv extends Qref).
Notation FS := (fail_safe QInv extends).
Notation SIM := (sim C no_m2 cap 1).

Lemma qref_mono : forall s1 s2 x, extends s1 s2 -> Qref s1 x -> Qref s2 x.
Proof. intros s1 s2 x X H. apply (ext_ref_ok _ _ _ X H). Qed.

(** what a [qresult_ok] (DD/QuantLemmas.v) of the unbounded run gives [safe_by_sim] *)
Lemma qres_post : forall s ru Phi, qresult_ok cget Sg s ru Phi ->
  exists s1 c1 r1, ru = Some (s1, c1, r1) /\ QInv s1 c1 /\ extends s s1 /\ Qref s1 r1.
Proof.
  intros s ru Phi [s1 [c1 [r1 [E [B [X [Q D]]]]]]]. exists s1, c1, r1.
  split; [exact E|]. split; [split; assumption|]. split; [exact X | apply (proj1 D)].
Qed.

(** the inner calls *)
Lemma gof_fs : forall s c (rb : res C),
  BddOK s -> QOK s c -> OomSafe.res_safe cget s rb -> cfr c rb -> FS s (gof rb).
Proof.
  intros s c rb B Q S F. destruct rb as [s' c' r|s' c'|]; simpl in *; [exact I | | contradiction].
  destruct S as [B' [X O']]. split; [|exact X]. split; [exact B'|].
  apply (qcacheok_frame C cget Sg s s' c c' B X Q O' F).
Qed.

Lemma gof_rs : forall s c (rb : res C) ru Phi, BddOK s -> QOK s c ->
  OomSafe.res_safe cget s rb -> cfr c rb -> SIM s (gof rb) ru -> qresult_ok cget Sg s ru Phi -> RS s (gof rb).
Proof.
  intros s c rb ru Phi B Q S F M R.
  apply (safe_by_sim C no_m2 cap 1 QInv extends ref Qref s _ _ M (qres_post s _ _ R) (gof_fs s c rb B Q S F)).
Qed.

Lemma gof_not_rs : forall pin s c f, BddOK s -> QOK s c -> ref_ok s f ->
  RS s (gof (apply_not_c C cget cadd cap pin (S (nlevels s)) s c f)).
Proof.
  intros pin s c f B Q Hf. pose proof (rlevel_le s (bo_wf s B) f) as Hl.
  destruct (den_exists s f B Hf) as [phi D].
  eapply (gof_rs s c _ _ _ B Q); [|apply apply_not_c_cfr|apply gof_not_sim
                                |apply (q_apply_not C cget cadd Hlossy Sg s c f phi B Q D)].
  apply (apply_not_c_safe C cget cadd Hlossy cap pin _ s c f B (proj1 Q) Hf). lia.
Qed.

Lemma gof_bin_rs : forall pin op s c f g, BddOK s -> QOK s c -> ref_ok s f -> ref_ok s g ->
  RS s (gof (apply_bin_c gt C cget cadd cap pin (S (nlevels s)) s c op f g)).
Proof.
  intros pin op s c f g B Q Hf Hg.
  destruct (den_exists s f B Hf) as [phi Df]. destruct (den_exists s g B Hg) as [psi Dg].
  eapply (gof_rs s c _ _ _ B Q); [|apply apply_bin_c_cfr|apply gof_bin_sim
                                |apply (q_apply_bin gt C cget cadd Hlossy Sg op s c f g phi psi B Q Df Dg)].
  apply (apply_bin_c_safe gt C cget cadd Hlossy cap pin op _ s c f g B (proj1 Q) Hf Hg). lia.
Qed.

Lemma gof_ite_rs : forall pin s c f g h, BddOK s -> QOK s c -> ref_ok s f -> ref_ok s g -> ref_ok s h ->
  RS s (gof (apply_ite_c gt C cget cadd cap pin (S (nlevels s)) s c f g h)).
Proof.
  intros pin s c f g h B Q Hf Hg Hh.
  destruct (den_exists s f B Hf) as [phi Df]. destruct (den_exists s g B Hg) as [psi Dg].
  destruct (den_exists s h B Hh) as [theta Dh].
  eapply (gof_rs s c _ _ _ B Q); [|apply apply_ite_c_cfr|apply gof_ite_sim
                                |apply (q_apply_ite gt C cget cadd Hlossy Sg s c f g h phi psi theta B Q Df Dg Dh)].
  apply (apply_ite_c_safe gt C cget cadd Hlossy cap pin _ s c f g h B (proj1 Q) Hf Hg Hh). lia.
Qed.

Lemma gfalse_fs : forall s c, BddOK s -> FS s (gfalse C s c).
Proof.
  intros s c B. unfold gfalse. destruct (term_of_total s false B) as [t Et]. rewrite Et. exact I.
Qed.

(** [let res = apply_bin::<Q>(manager, rec, t, e)?; cache.add; Ok(res)] *)
Lemma bin_then_add_fs : forall pin op s2 c2 t e (kc : C -> ref -> C),
  QInv s2 c2 -> Qref s2 t -> Qref s2 e ->
  FS s2 (gbind (gof (apply_bin_c gt C cget cadd cap pin (S (nlevels s2)) s2 c2 op t e))
           (fun s3 c3 res => GOk s3 (kc c3 res) res)).
Proof.
  intros pin op s2 c2 t e kc [B2 Q2] Ht He.
  apply (gbind_safe C QInv extends extends_trans ref ref Qref).
  - apply gof_bin_rs; assumption.
  - intros. exact I.
Qed.

(** the two children of a stored node *)
Lemma two_children : forall s id nd, BddOK s -> find_node s id = Some nd ->
  exists ft fe, nchildren nd = [ft; fe] /\
    ref_ok s (eref ft) /\ ref_ok s (eref fe) /\
    nlevel nd < rlevel s (eref ft) /\ nlevel nd < rlevel s (eref fe).
Proof.
  intros s id nd B E. pose proof (bo_wf s B) as H.
  destruct (bdd_children s id nd B E) as [ft [fe Ech]]. exists ft, fe. split; [exact Ech|].
  assert (Hft : nth_error (nchildren nd) 0 = Some ft) by (rewrite Ech; reflexivity).
  assert (Hfe : nth_error (nchildren nd) 1 = Some fe) by (rewrite Ech; reflexivity).
  destruct (child_nth s H id nd 0 ft E Hft) as [Oft Lft].
  destruct (child_nth s H id nd 1 fe E Hfe) as [Ofe Lfe]. auto.
Qed.

Lemma pop_total : forall (u : bool) s vars lvl, BddOK s -> ref_ok s vars -> lvl <= nlevels s ->
  exists vars', (if u then Some vars else set_pop (S (nlevels s)) s vars lvl) = Some vars' /\ ref_ok s vars'.
Proof.
  intros u s vars lvl B Ov Hl. destruct u; [eauto|].
  destruct (vchain_total s B vars Ov) as [L V]. pose proof (rlevel_le s (bo_wf s B) vars).
  destruct (set_pop_ok s B (S (nlevels s)) vars L lvl Ov V ltac:(lia) Hl) as [vars' [L' [E [O' _]]]]. eauto.
Qed.

Lemma vtail_total : forall (same : bool) s vid vnd, BddOK s -> find_node s vid = Some vnd ->
  exists vt, (if same then match nchildren vnd with [vt0; _] => Some (eref vt0) | _ => None end
              else Some (RN vid)) = Some vt /\ ref_ok s vt.
Proof.
  intros same s vid vnd B Evn. destruct same.
  - destruct (two_children s vid vnd B Evn) as [vt [ve [Evch [Ovt _]]]]. rewrite Evch. eauto.
  - exists (RN vid). split; [reflexivity | exists vnd; exact Evn].
Qed.

(** [ol] is the level of the other operand of [apply_quant] *)
Lemma top_cofactors : forall s id nd ol, BddOK s -> find_node s id = Some nd ->
  exists t e, (if Nat.leb (nlevel nd) ol
               then match nchildren nd with [t0; e0] => Some (eref t0, eref e0) | _ => None end
               else Some (RN id, RN id)) = Some (t, e) /\
    ref_ok s t /\ ref_ok s e /\
    Nat.min (nlevel nd) ol < rlevel s t /\ Nat.min (nlevel nd) ol < rlevel s e.
Proof.
  intros s id nd ol B E. destruct (Nat.leb_spec (nlevel nd) ol) as [Hle|Hlt].
  - destruct (two_children s id nd B E) as [t [e [Ech [Ot [Oe [Lt Le]]]]]]. rewrite Ech.
    exists (eref t), (eref e). rewrite Nat.min_l by exact Hle. auto.
  - exists (RN id), (RN id). rewrite (rlevel_node s id nd E), Nat.min_r by lia.
    repeat split; try (exists nd; exact E); exact Hlt.
Qed.

(** *** [quant_c] *)

Theorem quant_c_safe : forall par pin q fuel s c f vars,
  BddOK s -> QOK s c -> ref_ok s f -> ref_ok s vars -> nlevels s - rlevel s f < fuel ->
  RS s (quant_c gt C cget cadd cap par pin fuel s c q f vars).
Proof.
  intros par pin q. induction fuel as [|n IH]; intros s c f vars B Q Hf Ov Hfuel; [lia|].
  pose proof (bo_wf s B) as H.
  apply (safe_by_sim C no_m2 cap 1 QInv extends ref Qref s _ _ (quant_sim gt C cget cadd cap par pin (S n) s c q f vars)).
  { destruct (den_exists s f B Hf) as [phi D]. destruct (vchain_total s B vars Ov) as [L V].
    apply (qres_post s _ _ (quant_rec_ok gt C cget cadd Hlossy Sg q (S n) s c f vars phi L B Q D Ov V Hfuel)). }
  cbn [quant_c]. destruct f as [t|fid].
  { destruct (negb (is_unique q) || _); [exact I | apply gfalse_fs; exact B]. }
  destruct Hf as [fnd Ef]. rewrite Ef. rewrite (wf_stored s H fid fnd Ef).
  rewrite (rlevel_node s fid fnd Ef) in Hfuel. pose proof (wf_level s H fid fnd Ef) as Hlv.
  set (lvl := nlevel fnd) in *.
  destruct (pop_total (is_unique q) s vars lvl B Ov ltac:(lia)) as [vars' [Epop Ov']].
  rewrite Epop. clear Epop.
  destruct vars' as [tv|vid]; [exact I|].
  destruct Ov' as [vnd Evn]. rewrite Evn. rewrite (wf_stored s H vid vnd Evn).
  destruct (is_unique q && _); [apply gfalse_fs; exact B|].
  destruct (cget c (qcode q) _); [exact I|].
  destruct (two_children s fid fnd B Ef) as [ft [fe [Ech [Oft [Ofe [Lft Lfe]]]]]]. rewrite Ech.
  fold lvl in Lft, Lfe.
  destruct (vtail_total (Nat.eqb (nlevel vnd) lvl) s vid vnd B Evn) as [vt [Evt Ovt]].
  rewrite Evt.
  pose proof (rlevel_le s H (eref ft)) as Hle1. pose proof (rlevel_le s H (eref fe)) as Hle2.
  apply (gjoin2_safe_q C QInv extends extends_trans ref ref ref Qref Qref); [exact qref_mono | | |].
  - apply IH; auto. lia.
  - intros s1 c1 [B1 Q1] X1. apply IH; auto; [apply (ext_ref_ok _ _ _ X1 Ofe) | apply (ext_ref_ok _ _ _ X1 Ovt)|].
    rewrite (ext_nlevels _ _ X1), (ext_rlevel _ _ _ X1 Ofe). lia.
  - intros s2 c2 t e I2 X2 Ht He. destruct (Nat.eqb lvl (nlevel vnd)).
    + apply bin_then_add_fs; assumption.
    + apply gfin_safe; [exact I2 | apply extends_refl].
Qed.

(** *** [restrict_c] *)

Theorem restrict_c_safe : forall par fuel s c f vars,
  BddOK s -> QOK s c -> ref_ok s f -> ref_ok s vars -> nlevels s - rlevel s f < fuel ->
  RS s (restrict_c C cget cadd cap par fuel s c f vars).
Proof.
  intros par. induction fuel as [|n IH]; intros s c f vars B Q Hf Ov Hfuel; [lia|].
  pose proof (bo_wf s B) as H.
  apply (safe_by_sim C no_m2 cap 1 QInv extends ref Qref s _ _ (restrict_sim C cget cadd cap par (S n) s c f vars)).
  { destruct (den_exists s f B Hf) as [phi D]. destruct (lchain_total s B vars Ov) as [M V].
    apply (qres_post s _ _ (restrict_ok C cget cadd Hlossy Sg (S n) s c f vars phi M B Q D Ov V Hfuel)). }
  cbn [restrict_c]. destruct f as [tf|fid]; [exact I|]. destruct vars as [tv|vid]; [exact I|].
  destruct (den_exists s _ B Hf) as [phi D]. destruct (lchain_total s B _ Ov) as [M V].
  destruct Hf as [fnd Ef]. destruct Ov as [vnd Ev]. rewrite Ef, Ev.
  rewrite (wf_stored s H fid fnd Ef). rewrite (rlevel_node s fid fnd Ef) in Hfuel.
  pose proof (wf_level s H fid fnd Ef) as Hlf. pose proof (wf_level s H vid vnd Ev) as Hlv.
  destruct (restrict_inner_ok s B (S (nlevels s + nlevels s)) fid fnd vid vnd phi M Ef Ev D V ltac:(lia))
    as [res [Eri P]].
  rewrite Eri. destruct res as [r|vars' f' fnode']; simpl in P; [exact I|].
  destruct P as [fid' [vid' [vnd' [phi' [M' [-> [Ef' [-> [Ev' [D' [V' [Hlt [Hle HE]]]]]]]]]]]]].
  destruct (cget c code_restrict _); [exact I|].
  destruct (two_children s fid' fnode' B Ef') as [ft [fe [Ech [Oft [Ofe [Lft Lfe]]]]]]. rewrite Ech.
  assert (Ov' : ref_ok s (RN vid')) by (exists vnd'; exact Ev').
  pose proof (rlevel_le s H (eref ft)) as Hle1. pose proof (rlevel_le s H (eref fe)) as Hle2.
  apply (gjoin2_safe C QInv extends extends_trans ref ref ref Qref Qref).
  - apply IH; auto. lia.
  - intros s1 c1 [B1 Q1] X1. apply IH; auto; [apply (ext_ref_ok _ _ _ X1 Ofe) | apply (ext_ref_ok _ _ _ X1 Ov')|].
    rewrite (ext_nlevels _ _ X1), (ext_rlevel _ _ _ X1 Ofe). lia.
  - intros s2 c2 t e I2 X2. apply gfin_safe; [exact I2 | apply extends_refl].
Qed.

(** *** [substitute_c] *)

Theorem substitute_c_safe : forall par pin fuel s c f sv id pairs,
  BddOK s -> QOK s c -> ref_ok s f -> SvOK s sv pairs -> Sg id = Some pairs ->
  nlevels s - rlevel s f < fuel ->
  RS s (substitute_c gt C cget cadd cap par pin fuel s c f sv id).
Proof.
  intros par pin. induction fuel as [|n IH]; intros s c f sv id pairs B Q Hf SV Es Hfuel; [lia|].
  pose proof (bo_wf s B) as H.
  apply (safe_by_sim C no_m2 cap 1 QInv extends ref Qref s _ _ (substitute_sim gt C cget cadd cap par pin (S n) s c f sv id)).
  { destruct (den_exists s f B Hf) as [phi D].
    apply (qres_post s _ _ (substitute_ok gt C cget cadd Hlossy Sg (S n) s c f sv id pairs phi B Q D SV Es Hfuel)). }
  cbn [substitute_c]. destruct f as [tf|fid]; [exact I|].
  destruct Hf as [fnd Ef]. rewrite Ef. rewrite (wf_stored s H fid fnd Ef).
  rewrite (rlevel_node s fid fnd Ef) in Hfuel. pose proof (wf_level s H fid fnd Ef) as Hlv.
  set (lvl := nlevel fnd) in *.
  destruct (Nat.leb_spec (length sv) lvl) as [Hlen|Hlen]; [exact I|].
  destruct (cget c (code_subst id) _); [exact I|].
  destruct (two_children s fid fnd B Ef) as [ft [fe [Ech [Oft [Ofe [Lft Lfe]]]]]]. rewrite Ech.
  fold lvl in Lft, Lfe.
  pose proof (rlevel_le s H (eref ft)) as Hle1. pose proof (rlevel_le s H (eref fe)) as Hle2.
  destruct (nth_error sv lvl) as [r|] eqn:Er; [|apply nth_error_None in Er; lia].
  assert (Or : ref_ok s r).
  { destruct SV as [F _]. rewrite Forall_forall in F. apply F. eapply nth_error_In; eauto. }
  apply (gjoin2_safe_q C QInv extends extends_trans ref ref ref Qref Qref); [exact qref_mono | | |].
  - apply (IH s c (eref ft) sv id pairs); auto. lia.
  - intros s1 c1 [B1 Q1] X1.
    apply (IH s1 c1 (eref fe) sv id pairs); auto;
      [apply (ext_ref_ok _ _ _ X1 Ofe) | apply (svok_extends s s1 sv pairs H X1 SV)|].
    rewrite (ext_nlevels _ _ X1), (ext_rlevel _ _ _ X1 Ofe). lia.
  - intros s2 c2 t e [B2 Q2] X2 Ht He.
    apply (gbind_safe C QInv extends extends_trans ref ref Qref).
    + apply gof_ite_rs; auto. apply (ext_ref_ok _ _ _ X2 Or).
    + intros. exact I.
Qed.

(** *** [apply_quant_c] *)

Theorem apply_quant_c_safe : forall par pin q op fuel s c f g vars,
  BddOK s -> QOK s c -> ref_ok s f -> ref_ok s g -> ref_ok s vars ->
  nlevels s - Nat.min (rlevel s f) (rlevel s g) < fuel ->
  RS s (apply_quant_c gt C cget cadd cap par pin fuel s c q op f g vars).
Proof.
  intros par pin q op. induction fuel as [|n IH]; intros s c f g vars B Q Hf Hg Ov Hfuel; [lia|].
  pose proof (bo_wf s B) as H.
  apply (safe_by_sim C no_m2 cap 1 QInv extends ref Qref s _ _
           (apply_quant_sim gt C cget cadd cap par pin (S n) s c q op f g vars)).
  { destruct (den_exists s f B Hf) as [phi Df]. destruct (den_exists s g B Hg) as [psi Dg].
    destruct (vchain_total s B vars Ov) as [L V].
    apply (qres_post s _ _
             (apply_quant_ok gt C cget cadd Hlossy Sg q op (S n) s c f g vars phi psi L B Q Df Dg Ov V Hfuel)). }
  cbn [apply_quant_c].
  destruct (den_exists s f B Hf) as [phi Df]. destruct (den_exists s g B Hg) as [psi Dg].
  pose proof (terminal_bin_sound gt s op f g phi psi B Df Dg) as T.
  destruct (terminal_bin gt s op f g) as [r|r|o a b|]; [| | |contradiction].
  - (* Done *)
    eapply res_fail_safe.
    apply (quant_c_safe pin pin q _ s c r vars B Q (proj1 T) Ov).
    pose proof (rlevel_le s H r). lia.
  - (* Not *)
    destruct T as [Hr _].
    assert (Or : ref_ok s r) by (destruct Hr as [->| ->]; assumption).
    apply (gbind_safe C QInv extends extends_trans ref ref Qref).
    + apply gof_not_rs; assumption.
    + intros s1 c1 x [B1 Q1] X1 Hx. eapply res_fail_safe.
      apply (quant_c_safe pin pin q _ s1 c1 x vars B1 Q1 Hx (ext_ref_ok _ _ _ X1 Ov)).
      pose proof (rlevel_le s1 (bo_wf s1 B1) x). lia.
  - (* Binary: the operands as [terminal_bin] returns them, possibly swapped *)
    destruct T as [_ [[idf ->] [[idg ->] Hab]]].
    assert (Hab' : exists ia ib, a = RN ia /\ b = RN ib /\ ref_ok s a /\ ref_ok s b /\
                   nlevels s - Nat.min (rlevel s a) (rlevel s b) < S n).
    { destruct Hab as [[-> ->]|[-> [-> _]]]; [exists idf, idg | exists idg, idf; rewrite Nat.min_comm]; auto 6. }
    clear Hab Hf Hg Hfuel Df Dg. destruct Hab' as [ia [ib [-> [-> [Hf [Hg Hfuel]]]]]].
    assert (Bin : FS s (gof (apply_bin_c gt C cget cadd cap pin (S (nlevels s)) s c op (RN ia) (RN ib))))
      by (eapply res_fail_safe; apply gof_bin_rs; assumption).
    destruct Hf as [fnd Ef]. destruct Hg as [gnd Eg].
    rewrite (rlevel_node s ia fnd Ef), (rlevel_node s ib gnd Eg) in Hfuel.
    pose proof (wf_level s H ia fnd Ef) as Hlf. pose proof (wf_level s H ib gnd Eg) as Hlg.
    simpl inner. rewrite Ef, Eg.
    rewrite (wf_stored s H ia fnd Ef), (wf_stored s H ib gnd Eg).
    set (fl := nlevel fnd) in *. set (gl := nlevel gnd) in *. set (ml := Nat.min fl gl) in *.
    destruct (pop_total (is_unique q) s vars ml B Ov ltac:(unfold ml; lia)) as [vars' [Epop Ov']].
    rewrite Epop. clear Epop.
    destruct vars' as [tv|vid]; [exact Bin|].
    destruct Ov' as [vnd Evn]. rewrite Evn. rewrite (wf_stored s H vid vnd Evn).
    destruct (Nat.ltb (nlevel vnd) ml && is_unique q); [apply gfalse_fs; exact B|].
    destruct (Nat.ltb (nlevel vnd) ml); [exact Bin|].
    destruct (cget c (aqcode q op) _); [exact I|].
    destruct (vtail_total (Nat.eqb (nlevel vnd) ml) s vid vnd B Evn) as [vt [Evt Ovt]]. rewrite Evt.
    destruct (top_cofactors s ia fnd gl B Ef) as [ft [fe [Efc [Oft [Ofe [Lft Lfe]]]]]].
    destruct (top_cofactors s ib gnd fl B Eg) as [gt' [ge [Egc [Ogt [Oge [Lgt Lge]]]]]].
    fold fl in Efc, Lft, Lfe. fold gl in Egc, Lgt, Lge. rewrite Efc, Egc.
    rewrite (Nat.min_comm gl fl) in Lgt, Lge. fold ml in Lft, Lfe, Lgt, Lge.
    pose proof (Nat.min_glb_lt _ _ _ Lft Lgt) as Lt. pose proof (Nat.min_glb_lt _ _ _ Lfe Lge) as Le.
    apply (gjoin2_safe_q C QInv extends extends_trans ref ref ref Qref Qref); [exact qref_mono | | |].
    + apply IH; auto. lia.
    + intros s1 c1 [B1 Q1] X1.
      apply IH; auto; [apply (ext_ref_ok _ _ _ X1 Ofe) | apply (ext_ref_ok _ _ _ X1 Oge)
                      | apply (ext_ref_ok _ _ _ X1 Ovt)|].
      rewrite (ext_nlevels _ _ X1), (ext_rlevel _ _ _ X1 Ofe), (ext_rlevel _ _ _ X1 Oge). lia.
    + intros s2 c2 t e I2 X2 Ht He. destruct (Nat.eqb ml (nlevel vnd)).
      * apply bin_then_add_fs; assumption.
      * apply gfin_safe; [exact I2 | apply extends_refl].
Qed.

(** *** [substitute_prepare_c]: the variable nodes of the levels without a replacement *)

Definition Qrefs (s : snap) (l : list ref) : Prop := Forall (ref_ok s) l.

Lemma prepare_fill_c_fs : forall slots s c level,
  BddOK s -> QOK s c -> level + length slots <= nlevels s ->
  fail_safe QInv extends s (prepare_fill_c C cap s c slots level).
Proof.
  induction slots as [|[e|] rest IH]; intros s c level B Q Hlen; [exact I| |].
  - cbn [prepare_fill_c]. simpl in Hlen. specialize (IH s c (S level) B Q ltac:(lia)).
    destruct (prepare_fill_c C cap s c rest (S level)) as [s' c' l|s' c'|]; simpl in *; auto.
  - cbn [prepare_fill_c]. simpl in Hlen.
    destruct (term_of_total s true B) as [t1 E1]. destruct (term_of_total s false B) as [t0 E0].
    rewrite E1, E0. unfold gfin.
    destruct (get_or_insert_cap cap s level [E (RT t1); E (RT t0)]) as [[s1 e]|] eqn:Eg; simpl.
    2:{ split; [split; assumption | apply extends_refl]. }
    destruct (get_or_insert_cap_some cap s level _ _ Eg) as [Eg' _].
    destruct (var_node_ok s level t1 t0 s1 e B ltac:(lia) E1 E0 Eg') as [B1 [X1 _]].
    specialize (IH s1 c (S level) B1 (qcacheok_extends C cget Sg s s1 c B X1 Q)
                  ltac:(rewrite (ext_nlevels _ _ X1); lia)).
    destruct (prepare_fill_c C cap s1 c rest (S level)) as [s' c' l|s' c'|]; simpl in *; auto.
    destruct IH as [I' X']. split; [exact I' | eapply extends_trans; eauto].
Qed.

End Safe.
