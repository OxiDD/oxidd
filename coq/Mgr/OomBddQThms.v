(** * Out-of-memory behaviour of quantification / apply-and-quantify / restrict /
      substitute of the plain BDD kind (Mgr/OomBddQ.v), part 3: the C14 statements

    One statement per family for EVERY call [k : qcall] of the interface
    (forall / exists / unique, apply_forall / apply_exists / apply_unique with
    each of the 8 operators, restrict, substitute incl. substitute_prepare):
    [qrun_c] is the bounded run of the call, [qrun_u] the unbounded one of
    DD/Quant.v (C04).  They hold for every capacity, every cache that only
    serves what was added ([lossy]), every operand order [gt], either recursor
    at every depth of the algorithm's own recursion ([par]) and of the inner
    apply calls ([pin]). *)

From Coq Require Import List NArith PArith Bool Arith Lia FMapPositive.
From OxiVerif Require Import DD.Table DD.TableProofs DD.Sem DD.Build DD.BuildProofs
  DD.Apply DD.ApplyProofs DD.ApplyEvalProofs DD.Quant DD.QuantLemmas DD.QuantProofs DD.RestrictProofs
  DD.SubstProofs DD.ApplyQuantProofs DD.QuantSpecProofs DD.QuantTopProofs Mgr.Oom Mgr.OomProofs Mgr.OomSafe.
From OxiVerif Require Import Mgr.OomGen Mgr.OomGenProofs Mgr.OomBcddProofs Mgr.OomFamily
  Mgr.OomBddQ Mgr.OomBddQProofs Mgr.OomBddQSafe.
Import ListNotations.

(** the operands of a call are valid (for a substitution: what
    [Substitution] objects guarantee - every variable at most once, known
    variables, valid replacement functions - and the id is registered) *)
Definition qcall_ok (Sg : N -> option (list (nat * ref))) (s : snap) (k : qcall) : Prop :=
  match k with
  | KQuant _ f vars => ref_ok s f /\ ref_ok s vars
  | KApplyQuant _ _ f g vars => ref_ok s f /\ ref_ok s g /\ ref_ok s vars
  | KRestrict f vars => ref_ok s f /\ ref_ok s vars
  | KSubst f pairs id =>
    ref_ok s f /\ NoDup (map fst pairs) /\
    (forall v r, In (v, r) pairs -> v < nlevels s /\ ref_ok s r) /\ Sg id = Some pairs
  end.

(** what the result [r] (in table [s']) of call [k] (issued in table [s]) must
    denote: the specification functions of DD/Sem.v, for every reading of the
    operand [vars] as a variable set resp. a cube of literals *)
Definition qcall_spec (s : snap) (k : qcall) (s' : snap) (r : ref) : Prop :=
  match k with
  | KQuant q f vars =>
    forall vs, (forall v, In v vs -> v < nlevels s) -> is_varset s vars vs -> (q = QUnique -> NoDup vs) ->
    forall a, bfun_of s' r a = quant (qfun q) vs (bfun_of s f) a
  | KApplyQuant q op f g vars =>
    forall vs, (forall v, In v vs -> v < nlevels s) -> is_varset s vars vs -> (q = QUnique -> NoDup vs) ->
    forall a, bfun_of s' r a = quant (qfun q) vs (lift2 op (bfun_of s f) (bfun_of s g)) a
  | KRestrict f vars =>
    forall lits, NoDup (map fst lits) -> (forall p, In p lits -> fst p < nlevels s) -> is_cube s vars lits ->
    forall a, bfun_of s' r a = restrict_s lits (bfun_of s f) a
  | KSubst f pairs _ =>
    forall a, bfun_of s' r a = subst_s (map (fun p => (fst p, bfun_of s (snd p))) pairs) (bfun_of s f) a
  end.

Section Top.
Variable gt : ref -> ref -> bool.
Variable C : Type.
Variable cget : C -> N -> list ref -> option ref.
Variable cadd : C -> N -> list ref -> ref -> C.
Hypothesis Hlossy : lossy cget cadd.
Variable Sg : N -> option (list (nat * ref)).

Notation QOK := (QCacheOK cget Sg).
Notation QI := (QInv C cget Sg).
Notation RS := (res_safe (QInv C cget Sg) extends Qref).

(** the unbounded run of a call in a well-formed state (C04) *)
Theorem qrun_u_total : forall s c k, BddOK s -> QOK s c -> qcall_ok Sg s k ->
  exists su cu ru, qrun_u gt C cget cadd s c k = Some (su, cu, ru) /\
    BddOK su /\ extends s su /\ QOK su cu /\ ref_ok su ru /\ qcall_spec s k su ru.
Proof.
  intros s c [q f vars|q op f g vars|f vars|f pairs id] B Q Hk; cbn [qrun_u qcall_ok qcall_spec] in *.
  - destruct Hk as [Hf Hv]. apply (quant_edge_total gt C cget cadd Hlossy Sg q s c f vars B Q Hf Hv).
  - destruct Hk as [Hf [Hg Hv]].
    apply (apply_quant_edge_total gt C cget cadd Hlossy Sg q op s c f g vars B Q Hf Hg Hv).
  - destruct Hk as [Hf Hv]. apply (restrict_edge_total C cget cadd Hlossy Sg s c f vars B Q Hf Hv).
  - destruct Hk as [Hf [Hnd [Hp Es]]].
    apply (substitute_edge_sound gt C cget cadd Hlossy Sg s c f pairs id B Q Hf Hnd Hp Es).
Qed.

(** [substitute_prepare_c]: never stuck, and the replacement vector it returns is the
    one the substitution needs *)
Lemma substitute_prepare_c_safe : forall cap s c pairs, BddOK s -> QOK s c ->
  NoDup (map fst pairs) -> (forall v r, In (v, r) pairs -> v < nlevels s /\ ref_ok s r) ->
  res_safe QI extends (fun s0 sv => SvOK s0 sv pairs) s (substitute_prepare_c C cap s c pairs).
Proof.
  intros cap s c pairs B Q Hnd Hp. pose proof (bo_wf s B) as H.
  apply (safe_by_sim C no_m2 cap 1 QI extends _ _ s _ _ (substitute_prepare_sim C cap s c pairs)).
  - destruct (prepare_ok s pairs B Hnd Hp) as [s0 [sv [Ep [B0 [X0 SV]]]]].
    exists s0, c, sv. rewrite Ep. split; [reflexivity|].
    split; [split; [exact B0 | apply (qcacheok_extends C cget Sg s s0 c B X0 Q)]|]. split; assumption.
  - unfold substitute_prepare_c.
    destruct (prepare_slots_ok s pairs [] H (fun v r Hin => proj1 (Hp v r Hin)) ltac:(simpl; lia))
      as [slots [Es [Hlen _]]].
    rewrite Es. apply (prepare_fill_c_fs C cget Sg cap slots s c 0 B Q). simpl. exact Hlen.
Qed.

(** the bounded run of a call: never stuck; result or failure leave a
    well-formed extension with a correct cache *)
Theorem qrun_c_safe : forall cap par pin s c k, BddOK s -> QOK s c -> qcall_ok Sg s k ->
  RS s (qrun_c gt C cget cadd cap par pin s c k).
Proof.
  intros cap par pin s c k B Q Hk. pose proof (bo_wf s B) as H.
  destruct k as [q f vars|q op f g vars|f vars|f pairs id]; cbn [qrun_c qcall_ok] in *.
  - destruct Hk as [Hf Hv]. pose proof (rlevel_le s H f).
    apply (quant_c_safe gt C cget cadd Hlossy Sg cap par pin q _ s c f vars B Q Hf Hv). lia.
  - destruct Hk as [Hf [Hg Hv]].
    apply (apply_quant_c_safe gt C cget cadd Hlossy Sg cap par pin q op _ s c f g vars B Q Hf Hg Hv). lia.
  - destruct Hk as [Hf Hv]. pose proof (rlevel_le s H f).
    apply (restrict_c_safe C cget cadd Hlossy Sg cap par _ s c f vars B Q Hf Hv). lia.
  - destruct Hk as [Hf [Hnd [Hp Es]]].
    apply (safe_by_sim C no_m2 cap 1 QI extends ref Qref s _ _
             (qrun_sim gt C cget cadd cap par pin s c (KSubst f pairs id))).
    + destruct (den_exists s f B Hf) as [phi D].
      apply (qres_post C cget Sg s _ _
               (substitute_edge_ok gt C cget cadd Hlossy Sg s c f pairs id phi B Q D Hnd Hp Es)).
    + unfold substitute_edge_c.
      apply (gbind_safe C QI extends extends_trans _ _ (fun s0 sv => SvOK s0 sv pairs)).
      * apply substitute_prepare_c_safe; assumption.
      * intros s0 c0 sv [B0 Q0] X0 SV. eapply res_fail_safe.
        apply (substitute_c_safe gt C cget cadd Hlossy Sg cap par pin _ s0 c0 f sv id pairs B0 Q0
                 (ext_ref_ok _ _ _ X0 Hf) SV Es).
        pose proof (rlevel_le s0 (bo_wf s0 B0) f). lia.
Qed.

(** the state after a failure *)
Definition qfailed_ok (cap : nat) (s s' : snap) (c' : C) : Prop :=
  BddOK s' /\ QOK s' c' /\ extends s s' /\ intact s s' /\
  node_count s <= node_count s' /\ cap <= node_count s'.

(** the outcome of a bounded run, given the table [su] of the unbounded run *)
Definition qexact (cap : nat) (s : snap) (rb : gres C ref) (su : snap) (cu : C) (ru : ref) : Prop :=
  (node_count su <= Nat.max cap (node_count s) -> rb = GOk su cu ru) /\
  (Nat.max cap (node_count s) < node_count su -> exists s' c', rb = GOom s' c' /\ qfailed_ok cap s s' c').

(** ** The family (Mgr/OomFamily.v): the two recursors are its parameter *)

Definition qrun_p (cap : nat) (p : (nat -> bool) * (nat -> bool)) : snap -> C -> qcall -> gres C ref :=
  qrun_c gt C cget cadd cap (fst p) (snd p).
Definition qpre (s : snap) (c : C) (k : qcall) : Prop := BddOK s /\ QOK s c /\ qcall_ok Sg s k.

Lemma qfam_sim : forall cap p s c k, sim C no_m2 cap 1 s (qrun_p cap p s c k) (qrun_u gt C cget cadd s c k).
Proof. intros. apply qrun_sim. Qed.

Lemma qfam_rs : forall cap p s c k, qpre s c k -> RS s (qrun_p cap p s c k).
Proof. intros cap p s c k [B [Q Hk]]. apply qrun_c_safe; assumption. Qed.

Lemma qfam_u_ok : forall s c k, qpre s c k ->
  exists su cu ru, qrun_u gt C cget cadd s c k = Some (su, cu, ru) /\ qcall_spec s k su ru.
Proof.
  intros s c k [B [Q Hk]]. destruct (qrun_u_total s c k B Q Hk) as [su [cu [ru [E [_ [_ [_ [_ V]]]]]]]].
  exists su, cu, ru. split; assumption.
Qed.

Lemma qfam_failed : forall cap s c k s' c', qpre s c k ->
  failed1 C QI extends cap s s' c' -> qfailed_ok cap s s' c'.
Proof.
  intros cap s c k s' c' [B _] [[B' Q'] [X [G F]]].
  split; [exact B'|]. split; [exact Q'|]. split; [exact X|]. split; [apply (extends_intact s s' B X)|]. auto.
Qed.

(** *** never a wrong edge: a result is literally the result of the unbounded run *)
Theorem qoom_never_wrong : forall cap par pin s c k s' c' r,
  qrun_c gt C cget cadd cap par pin s c k = GOk s' c' r ->
  qrun_u gt C cget cadd s c k = Some (s', c', r).
Proof. intros cap par pin. apply (fam_never_wrong qfam_sim cap (par, pin)). Qed.

(** ... hence the specified function, in a table in which everything that
    existed before is intact *)
Theorem qoom_never_wrong_sem : forall cap par pin s c k s' c' r,
  BddOK s -> QOK s c -> qcall_ok Sg s k ->
  qrun_c gt C cget cadd cap par pin s c k = GOk s' c' r ->
  BddOK s' /\ QOK s' c' /\ intact s s' /\ ref_ok s' r /\ qcall_spec s k s' r.
Proof.
  intros cap par pin s c k s' c' r B Q Hk E.
  destruct (fam_never_wrong_sem qfam_sim qfam_rs qfam_u_ok cap (par, pin) s c k s' c' r (conj B (conj Q Hk)) E)
    as [[B' Q'] [X R]].
  split; [exact B'|]. split; [exact Q'|]. split; [apply (extends_intact s s' B X) | exact R].
Qed.

(** *** the state after a failure *)
Theorem qoom_safe : forall cap par pin s c k s' c',
  BddOK s -> QOK s c -> qcall_ok Sg s k ->
  qrun_c gt C cget cadd cap par pin s c k = GOom s' c' ->
  qfailed_ok cap s s' c'.
Proof.
  intros cap par pin s c k s' c' B Q Hk.
  apply (fam_safe qfam_sim qfam_rs qfam_failed cap (par, pin) s c k s' c' (conj B (conj Q Hk))).
Qed.

(** *** no panic, no divergence *)
Theorem qoom_no_panic : forall cap par pin s c k,
  BddOK s -> QOK s c -> qcall_ok Sg s k ->
  qrun_c gt C cget cadd cap par pin s c k <> GStuck.
Proof.
  intros cap par pin s c k B Q Hk.
  apply (fam_no_panic qfam_rs cap (par, pin) s c k (conj B (conj Q Hk))).
Qed.

(** *** retry: when the table of the unbounded run fits, the bounded run
    succeeds with exactly that result *)
Theorem qoom_retry : forall cap par pin s c k su cu ru,
  qrun_u gt C cget cadd s c k = Some (su, cu, ru) -> node_count su <= cap ->
  qrun_c gt C cget cadd cap par pin s c k = GOk su cu ru.
Proof. intros cap par pin. apply (fam_retry qfam_sim cap (par, pin)). Qed.

(** *** monotone in the capacity, independent of the recursors *)
Theorem qoom_monotone : forall cap cap' par par' pin pin' s c k s' c' r, cap <= cap' ->
  qrun_c gt C cget cadd cap par pin s c k = GOk s' c' r ->
  qrun_c gt C cget cadd cap' par' pin' s c k = GOk s' c' r.
Proof.
  intros cap cap' par par' pin pin'.
  apply (fam_monotone qfam_sim cap cap' (par, pin) (par', pin')).
Qed.

(** *** exactness: the call fails iff the table of the unbounded run does not fit *)
Theorem qoom_exact : forall cap par pin s c k,
  BddOK s -> QOK s c -> qcall_ok Sg s k ->
  exists su cu ru, qrun_u gt C cget cadd s c k = Some (su, cu, ru) /\
    qcall_spec s k su ru /\
    qexact cap s (qrun_c gt C cget cadd cap par pin s c k) su cu ru.
Proof.
  intros cap par pin s c k B Q Hk.
  exact (fam_exact qfam_sim qfam_rs qfam_u_ok qfam_failed cap (par, pin) s c k (conj B (conj Q Hk))).
Qed.

(** failing or not does not depend on the recursors *)
Theorem qoom_outcome_recursor_indep : forall cap par par' pin pin' s c k,
  BddOK s -> QOK s c -> qcall_ok Sg s k ->
  gres_code (qrun_c gt C cget cadd cap par pin s c k) =
  gres_code (qrun_c gt C cget cadd cap par' pin' s c k).
Proof.
  intros cap par par' pin pin' s c k B Q Hk.
  apply (fam_recursor_indep qfam_sim qfam_rs qfam_u_ok qfam_failed cap (par, pin) (par', pin') s c k (conj B (conj Q Hk))).
Qed.

End Top.
