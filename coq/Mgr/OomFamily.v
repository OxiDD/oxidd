(** * The out-of-memory statements of a family of bounded operations, once

    Every bounded model of this directory that has a node budget only (BDD and
    BCDD quantification, ZBDD subset / restrict / var, the TDD operators, cube
    picking) comes with the same four facts about a call [k]:

    - [run_sim]: the bounded run refines the unbounded one ([sim], no hypothesis);
    - [run_rs]: under the precondition [Pre] it is never stuck, and a result as
      well as a failure leave a table that extends the old one and satisfies the
      invariant [Inv] ([res_safe]);
    - [run_u_ok]: under [Pre] the unbounded run returns what the specification
      [Spec] of the call says;
    - [pre_failed]: what the kind says of the table after a failure ([F]: the
      invariant, and everything that existed is intact) follows from [failed1].

    The statements of property C14 follow from these alone; the files
    Mgr/Oom*Thms.v instantiate them.  [P] is whatever the bounded run depends on
    beside capacity, state and call (the recursors); fuel, where there is any,
    is part of the call. *)

From Coq Require Import List NArith PArith Bool Arith Lia FMapPositive.
From OxiVerif Require Import DD.Table DD.TableProofs DD.Build DD.BuildProofs Mgr.Oom Mgr.OomProofs.
From OxiVerif Require Import Mgr.OomGen Mgr.OomGenProofs Mgr.OomBcddProofs.

Section Family.
Variables C R : Type.
Variable Inv : snap -> C -> Prop.
Variable Q : snap -> R -> Prop.
Variables P Call : Type.
Variable run_c : nat -> P -> snap -> C -> Call -> gres C R.
Variable run_u : snap -> C -> Call -> option (snap * C * R).
Variable Pre : snap -> C -> Call -> Prop.
Variable Spec : snap -> C -> Call -> snap -> C -> R -> Prop.
Variable F : nat -> snap -> snap -> C -> Prop.

Notation SIM cap := (sim C no_m2 cap 1).
Notation RS := (res_safe Inv extends Q).

Hypothesis run_sim : forall cap p s c k, SIM cap s (run_c cap p s c k) (run_u s c k).

Theorem fam_never_wrong : forall cap p s c k s' c' r,
  run_c cap p s c k = GOk s' c' r -> run_u s c k = Some (s', c', r).
Proof. intros cap p s c k s' c' r. apply (sim_never_wrong C no_m2 cap 1 R _ _ _ _ _ _ (run_sim cap p s c k)). Qed.

(** retry: when the table of the unbounded run fits, the bounded run succeeds
    with exactly that result *)
Theorem fam_retry : forall cap p s c k su cu ru,
  run_u s c k = Some (su, cu, ru) -> node_count su <= cap -> run_c cap p s c k = GOk su cu ru.
Proof.
  intros cap p s c k su cu ru E. apply (sim1_retry C R cap s). rewrite <- E. apply run_sim.
Qed.

(** monotone in the capacity, whatever the recursors *)
Theorem fam_monotone : forall cap cap' p p' s c k s' c' r, cap <= cap' ->
  run_c cap p s c k = GOk s' c' r -> run_c cap' p' s c k = GOk s' c' r.
Proof.
  intros cap cap' p p' s c k s' c' r Hle.
  apply (sim1_monotone C R cap cap' s _ _ (run_u s c k) s' c' r Hle); apply run_sim.
Qed.

Hypothesis run_rs : forall cap p s c k, Pre s c k -> RS s (run_c cap p s c k).
Hypothesis run_u_ok : forall s c k, Pre s c k ->
  exists su cu ru, run_u s c k = Some (su, cu, ru) /\ Spec s c k su cu ru.
Hypothesis pre_failed : forall cap s c k s' c', Pre s c k ->
  failed1 C Inv extends cap s s' c' -> F cap s s' c'.

Theorem fam_never_wrong_sem : forall cap p s c k s' c' r, Pre s c k ->
  run_c cap p s c k = GOk s' c' r ->
  Inv s' c' /\ extends s s' /\ Q s' r /\ Spec s c k s' c' r.
Proof.
  intros cap p s c k s' c' r H E. pose proof (run_rs cap p s c k H) as S. rewrite E in S.
  apply fam_never_wrong in E.
  destruct (run_u_ok s c k H) as [su [cu [ru [Eu V]]]]. rewrite E in Eu. inversion Eu; subst.
  destruct S as [I [X Qr]]. auto.
Qed.

(** the state after a failure *)
Theorem fam_safe : forall cap p s c k s' c', Pre s c k ->
  run_c cap p s c k = GOom s' c' -> F cap s s' c'.
Proof.
  intros cap p s c k s' c' H E. apply (pre_failed cap s c k s' c' H).
  apply (run1_failed C R Inv extends Q cap s _ _ s' c' (run_rs cap p s c k H) (run_sim cap p s c k) E).
Qed.

(** no panic, no divergence *)
Theorem fam_no_panic : forall cap p s c k, Pre s c k -> run_c cap p s c k <> GStuck.
Proof. intros cap p s c k H. apply (res_safe_not_stuck C Inv extends R Q s _ (run_rs cap p s c k H)). Qed.

Theorem fam_exact : forall cap p s c k, Pre s c k ->
  exists su cu ru, run_u s c k = Some (su, cu, ru) /\ Spec s c k su cu ru /\
    exact1 C R (F cap s) cap s (run_c cap p s c k) su cu ru.
Proof.
  intros cap p s c k H. destruct (run_u_ok s c k H) as [su [cu [ru [Eu V]]]].
  exists su, cu, ru. split; [exact Eu|]. split; [exact V|].
  apply (run1_exact C R Inv extends Q (F cap s) cap s _ su cu ru (fun s' c' => pre_failed cap s c k s' c' H)
           (run_rs cap p s c k H)).
  rewrite <- Eu. apply run_sim.
Qed.

(** failing or not does not depend on the recursors *)
Theorem fam_recursor_indep : forall cap p p' s c k, Pre s c k ->
  gres_code (run_c cap p s c k) = gres_code (run_c cap p' s c k).
Proof.
  intros cap p p' s c k H.
  destruct (fam_exact cap p s c k H) as [su [cu [ru [E [_ X1]]]]].
  destruct (fam_exact cap p' s c k H) as [su' [cu' [ru' [E' [_ X2]]]]].
  rewrite E in E'. inversion E'; subst su' cu' ru'.
  apply (exact1_code C R _ _ cap s _ _ su cu ru X1 X2).
Qed.

End Family.

Arguments fam_never_wrong {C R P Call run_c run_u} run_sim.
Arguments fam_retry {C R P Call run_c run_u} run_sim.
Arguments fam_monotone {C R P Call run_c run_u} run_sim.
Arguments fam_never_wrong_sem {C R Inv Q P Call run_c run_u Pre Spec} run_sim run_rs run_u_ok.
Arguments fam_safe {C R Inv Q P Call run_c run_u Pre F} run_sim run_rs pre_failed.
Arguments fam_no_panic {C R Inv Q P Call run_c Pre} run_rs.
Arguments fam_exact {C R Inv Q P Call run_c run_u Pre Spec F} run_sim run_rs run_u_ok pre_failed.
Arguments fam_recursor_indep {C R Inv Q P Call run_c run_u Pre Spec F} run_sim run_rs run_u_ok pre_failed.
