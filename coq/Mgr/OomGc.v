(** * After the failure: drop handles, collect, retry (C14, last clause)

    - [with_handles s hs]: the table with a sub-list of its handles (the user
      drops functions);
    - [collected s sg]: [sg] is what a garbage collection leaves of [s]: the
      same table restricted to the nodes reachable from a handle (that this is
      what [Manager::gc] does on the real manager is C05: exact reference
      counts, no node with count 0 after gc <-> every stored node reachable);
    - [collected_ok]: the collected table is again a well-formed BDD table, it
      is a sub-table of [s] (so every surviving reference means what it
      meant), all handles survive, no more nodes than before are stored;
    - [oom_recover_*]: an operation fails with out-of-memory; some handles
      (not the operands) are dropped; a collection runs; the cache is any
      correct cache (the code clears it).  Then the same operation on the same
      operands is again exactly "the correct result iff it fits" - now
      measured against the collected table, in which the garbage of the failed
      attempt is gone. *)

From Coq Require Import List NArith PArith Bool Arith Lia FMapPositive.
From OxiVerif Require Import DD.Table DD.TableProofs DD.Canon DD.Sem DD.Build DD.BuildProofs
  DD.Apply DD.ApplyProofs Mgr.Oom Mgr.OomProofs Mgr.OomSafe.
From OxiVerif Require Mgr.OomGenProofs.
Import ListNotations.

(** ** Node counts of sub-tables *)

Lemma sub_count : forall a b,
  (forall id nd, find_node a id = Some nd -> find_node b id = Some nd) -> node_count a <= node_count b.
Proof.
  intros a b X. unfold node_count. rewrite !PositiveMap.cardinal_1.
  apply NoDup_incl_length.
  - apply (NoDup_map_inv fst). apply elements_keys_nodup.
  - intros [id nd] Hin. apply find_node_elements. apply X.
    apply find_node_elements. exact Hin.
Qed.

Lemma extends_count : forall a b, extends a b -> node_count a <= node_count b.
Proof. intros a b X. apply sub_count. apply (ext_nodes _ _ X). Qed.

(** ** Dropping handles *)

Definition with_handles (s : snap) (hs : list (N * edge)) : snap :=
  mkSnap (s_kind s) (s_nodes s) (s_terms s) (s_v2l s) (s_l2v s) hs.

Lemma semk_with_handles : forall s hs k r c0, semk (with_handles s hs) k r c0 = semk s k r c0.
Proof.
  intros s hs. induction k as [|k IH]; intros r c0; destruct r as [t|id]; try reflexivity.
  rewrite !semk_S. change (find_node (with_handles s hs) id) with (find_node s id).
  destruct (find_node s id) as [nd|]; [|reflexivity].
  destruct (nth_error (nchildren nd) (c0 (nlevel nd))); [apply IH | reflexivity].
Qed.

Lemma with_handles_ok : forall s hs, BddOK s -> incl hs (s_handles s) -> BddOK (with_handles s hs).
Proof.
  intros s hs B Hincl. pose proof (bo_wf s B) as H. constructor.
  - constructor; try (exact (wf_perm_len s H) || exact (wf_perm_v2l s H) || exact (wf_perm_l2v s H)
                      || exact (wf_term_ids s H) || exact (wf_term_vals s H)).
    + exact (wf_arity s H).
    + exact (wf_stored s H).
    + exact (wf_level s H).
    + exact (wf_child s H).
    + exact (wf_reduced s H).
    + exact (wf_tags s H).
    + exact (wf_unique s H).
    + intros h Hh. apply (wf_handles s H h (Hincl h Hh)).
  - exact (bo_kind s B).
  - exact (bo_codes s B).
  - exact (bo_false s B).
  - exact (bo_true s B).
Qed.

Lemma reach_with_handles : forall s hs r, incl hs (s_handles s) ->
  reachable (with_handles s hs) (handle_refs (with_handles s hs)) r ->
  reachable s (handle_refs s) r.
Proof.
  intros s hs r Hincl R. induction R as [r Hin|id nd e R IH E He].
  - apply reach_root. unfold handle_refs in *. simpl in Hin.
    apply in_map_iff in Hin. destruct Hin as [h [<- Hh]]. apply in_map_iff. exists h. auto.
  - apply (reach_child s _ id nd e IH E He).
Qed.

(** ** Collection *)

Record collected (s sg : snap) : Prop := mkCollected {
  co_kind : s_kind sg = s_kind s;
  co_terms : s_terms sg = s_terms s;
  co_v2l : s_v2l sg = s_v2l s;
  co_l2v : s_l2v sg = s_l2v s;
  co_handles : s_handles sg = s_handles s;
  co_nodes : forall id nd, find_node sg id = Some nd <->
               (find_node s id = Some nd /\ reachable s (handle_refs s) (RN id))
}.

Section Collected.
Variables s sg : snap.
Hypothesis B : BddOK s.
Hypothesis Cg : collected s sg.

Let H : WF s := bo_wf s B.

Lemma co_old : forall id nd, find_node sg id = Some nd -> find_node s id = Some nd.
Proof. intros id nd E. apply (proj1 (co_nodes s sg Cg id nd) E). Qed.

Lemma co_nlevels : nlevels sg = nlevels s.
Proof. unfold nlevels. rewrite (co_l2v s sg Cg). reflexivity. Qed.

Lemma co_term_val : forall t, term_val sg t = term_val s t.
Proof. intros t. unfold term_val. rewrite (co_terms s sg Cg). reflexivity. Qed.

(** a reference of [s] that is reachable from a handle survives *)
Lemma co_keeps : forall r, ref_ok s r -> reachable s (handle_refs s) r -> ref_ok sg r.
Proof.
  intros [t|id] Hok R; simpl in *.
  - rewrite co_term_val. exact Hok.
  - destruct Hok as [nd E]. exists nd. apply (co_nodes s sg Cg). auto.
Qed.

Lemma co_rlevel : forall r, ref_ok sg r -> rlevel sg r = rlevel s r.
Proof.
  intros [t|id] Hok; simpl.
  - apply co_nlevels.
  - destruct Hok as [nd E]. rewrite E, (co_old id nd E). reflexivity.
Qed.

Lemma co_child : forall id nd e, find_node sg id = Some nd -> In e (nchildren nd) ->
  ref_ok sg (eref e) /\ nlevel nd < rlevel sg (eref e).
Proof.
  intros id nd e E He. destruct (proj1 (co_nodes s sg Cg id nd) E) as [Es R].
  destruct (wf_child s H id nd e Es He) as [Ok Lv].
  assert (Okg : ref_ok sg (eref e)) by (apply co_keeps; [exact Ok | apply (reach_child s _ id nd e R Es He)]).
  split; [exact Okg | rewrite (co_rlevel _ Okg); exact Lv].
Qed.

Lemma collected_wf : WF sg.
Proof.
  pose proof (bo_kind s B) as Hk.
  constructor.
  - rewrite (co_v2l s sg Cg), (co_l2v s sg Cg). apply (wf_perm_len s H).
  - rewrite (co_v2l s sg Cg), (co_l2v s sg Cg). apply (wf_perm_v2l s H).
  - rewrite (co_v2l s sg Cg), (co_l2v s sg Cg). apply (wf_perm_l2v s H).
  - intros id nd E. rewrite (co_kind s sg Cg). apply (wf_arity s H id nd (co_old id nd E)).
  - intros id nd E. apply (wf_stored s H id nd (co_old id nd E)).
  - intros id nd E. rewrite co_nlevels. apply (wf_level s H id nd (co_old id nd E)).
  - apply co_child.
  - intros id nd E. pose proof (wf_reduced s H id nd (co_old id nd E)) as R.
    unfold reduced in *. rewrite (co_kind s sg Cg). rewrite Hk in *. exact R.
  - intros Hkk id nd e E He. rewrite (co_kind s sg Cg) in Hkk.
    apply (wf_tags s H Hkk id nd e (co_old id nd E) He).
  - intros i1 i2 n1 n2 E1 E2. apply (wf_unique s H i1 i2 n1 n2 (co_old _ _ E1) (co_old _ _ E2)).
  - rewrite (co_terms s sg Cg). apply (wf_term_ids s H).
  - rewrite (co_terms s sg Cg). apply (wf_term_vals s H).
  - intros h Hh. rewrite (co_handles s sg Cg) in Hh. destruct (wf_handles s H h Hh) as [Ok Tg].
    split; [|rewrite (co_kind s sg Cg); exact Tg].
    apply co_keeps; [exact Ok|]. apply reach_root. unfold handle_refs. apply in_map_iff. exists h. auto.
Qed.

Lemma collected_sub : extends sg s.
Proof.
  constructor; try (symmetry; apply Cg). exact co_old.
Qed.

Theorem collected_ok :
  BddOK sg /\ extends sg s /\
  (forall h, In h (s_handles s) -> ref_ok sg (eref (snd h))) /\
  (forall r, ref_ok sg r -> forall k c0, semk sg k r c0 = semk s k r c0) /\
  (forall id nd, find_node sg id = Some nd -> reachable sg (handle_refs sg) (RN id)) /\
  node_count sg <= node_count s.
Proof.
  pose proof collected_wf as Hg. pose proof collected_sub as X.
  split; [|split; [exact X|]; split; [|split; [|split]]].
  - constructor.
    + exact Hg.
    + rewrite (co_kind s sg Cg). apply (bo_kind s B).
    + intros t v. rewrite co_term_val. apply (bo_codes s B).
    + destruct (bo_false s B) as [t E]. exists t. rewrite co_term_val. exact E.
    + destruct (bo_true s B) as [t E]. exists t. rewrite co_term_val. exact E.
  - intros h Hh. rewrite <- (co_handles s sg Cg) in Hh. apply (wf_handles sg Hg h Hh).
  - intros r Hr k c0. symmetry. apply (semk_extends sg s Hg X k r c0 Hr).
  - (* every surviving node is reachable inside the collected table *)
    intros id nd E. destruct (proj1 (co_nodes s sg Cg id nd) E) as [_ R].
    assert (Gen : forall r, reachable s (handle_refs s) r -> ref_ok s r -> reachable sg (handle_refs sg) r).
    { intros r R0. induction R0 as [r Hin|pid pnd e R0 IH Ep He]; intros Hok.
      - apply reach_root. unfold handle_refs in *. rewrite (co_handles s sg Cg). exact Hin.
      - assert (Hp : ref_ok s (RN pid)) by (exists pnd; exact Ep).
        apply (reach_child sg _ pid pnd e (IH Hp)); [|exact He].
        apply (co_nodes s sg Cg). auto. }
    apply Gen; [exact R | exists nd; apply (co_old id nd E)].
  - apply (extends_count sg s X).
Qed.

End Collected.

(** ** Failure, drop, collection, retry *)

Section Recover.
Variable gt : ref -> ref -> bool.
Variable C : Type.
Variable cget : C -> N -> list ref -> option ref.
Variable cadd : C -> N -> list ref -> ref -> C.
Hypothesis Hlossy : lossy cget cadd.

(** the situation after: an operation on [s] failed leaving [s'], handles were
    dropped ([hs] remain, among them those of the operands [keep]), a
    collection produced [sg] *)
Lemma recovered_ok : forall cap s s' c' hs keep sg, BddOK s ->
  failed_ok C cget cap s s' c' -> incl hs (s_handles s') ->
  (forall r, In r keep -> ref_ok s r /\ exists k, In (k, E r) hs) ->
  collected (with_handles s' hs) sg ->
  BddOK sg /\ FUEL sg = FUEL s /\ node_count sg <= node_count s /\
  forall r, In r keep -> ref_ok sg r /\ forall c0 x, bvalue s r c0 x <-> bvalue sg r c0 x.
Proof.
  intros cap s s' c' hs keep sg B [B' [_ [X _]]] Hincl Hkeep Cg.
  pose proof (with_handles_ok s' hs B' Hincl) as B''.
  destruct (collected_ok _ sg B'' Cg) as [Bg [Xg [Hh [Hsem [_ Hcnt]]]]].
  assert (Hl : nlevels sg = nlevels s).
  { rewrite (co_nlevels _ sg Cg). change (nlevels (with_handles s' hs)) with (nlevels s').
    apply (ext_nlevels _ _ X). }
  split; [exact Bg|]. split; [unfold FUEL; rewrite Hl; reflexivity|].
  split.
  { (* the collected table is a sub-table of [s] *)
    apply sub_count.
    intros id nd Eg.
    destruct (proj1 (co_nodes _ sg Cg id nd) Eg) as [E' R'].
    change (find_node (with_handles s' hs) id) with (find_node s' id) in E'.
    apply (reach_with_handles s' hs _ Hincl) in R'.
    destruct (OomGenProofs.next_reach_old s s' (bo_wf s B) (OomGenProofs.next_of_extends s s' X) _ R') as [[nd0 E0] _].
    pose proof (ext_nodes _ _ X id nd0 E0) as E0'. rewrite E' in E0'. inversion E0'; subst. exact E0. }
  intros r Hr. destruct (Hkeep r Hr) as [Hok [k Hk]].
  assert (Hokg : ref_ok sg r).
  { apply (Hh (k, E r)). exact Hk. }
  split; [exact Hokg|]. intros c0 x. unfold bvalue, FUEL. rewrite Hl.
  rewrite (Hsem r Hokg), semk_with_handles, (semk_extends s s' (bo_wf s B) X _ r c0 Hok). reflexivity.
Qed.

Theorem oom_recover_not : forall cap par fuel s c f s' c' hs sg cg,
  BddOK s -> CacheOK cget s c -> ref_ok s f -> FUEL s <= fuel ->
  apply_not_c C cget cadd cap par fuel s c f = ROom s' c' ->
  incl hs (s_handles s') -> (exists k, In (k, E f) hs) ->
  collected (with_handles s' hs) sg -> CacheOK cget sg cg ->
  BddOK sg /\ node_count sg <= node_count s /\
  exists su cu ru, apply_not C cget cadd fuel sg cg f = Some (su, cu, ru) /\
    (forall c0, bchoice c0 -> exists x, bvalue s f c0 x /\ bvalue su ru c0 (negb x)) /\
    exact_outcome C cget cap sg (apply_not_c C cget cadd cap par fuel sg cg f) su cu ru.
Proof.
  intros cap par fuel s c f s' c' hs sg cg B O Hf Hfuel E Hincl Hk Cg Og.
  destruct (recovered_ok cap s s' c' hs [f] sg B
              (oom_safe_not C cget cadd Hlossy cap par fuel s c f s' c' B O Hf Hfuel E) Hincl
              ltac:(intros r [<-|[]]; auto) Cg) as [Bg [Hfu [Hcnt Hops]]].
  destruct (Hops f (or_introl eq_refl)) as [Hfg Vf].
  split; [exact Bg|]. split; [exact Hcnt|].
  destruct (oom_exact_not C cget cadd Hlossy cap par fuel sg cg f Bg Og Hfg ltac:(rewrite Hfu; exact Hfuel))
    as [su [cu [ru [Eu [V X']]]]].
  exists su, cu, ru. split; [exact Eu|]. split; [|exact X'].
  intros c0 Hc. destruct (V c0 Hc) as [x [Vx Vr]]. exists x. split; [apply Vf; exact Vx | exact Vr].
Qed.

Theorem oom_recover_bin : forall cap par op fuel s c f g s' c' hs sg cg,
  BddOK s -> CacheOK cget s c -> ref_ok s f -> ref_ok s g -> FUEL s <= fuel ->
  apply_bin_c gt C cget cadd cap par fuel s c op f g = ROom s' c' ->
  incl hs (s_handles s') -> (exists k, In (k, E f) hs) -> (exists k, In (k, E g) hs) ->
  collected (with_handles s' hs) sg -> CacheOK cget sg cg ->
  BddOK sg /\ node_count sg <= node_count s /\
  exists su cu ru, apply_bin gt C cget cadd fuel sg cg op f g = Some (su, cu, ru) /\
    (forall c0, bchoice c0 -> exists x y,
       bvalue s f c0 x /\ bvalue s g c0 y /\ bvalue su ru c0 (eval_bop op x y)) /\
    exact_outcome C cget cap sg (apply_bin_c gt C cget cadd cap par fuel sg cg op f g) su cu ru.
Proof.
  intros cap par op fuel s c f g s' c' hs sg cg B O Hf Hg Hfuel E Hincl Hkf Hkg Cg Og.
  destruct (recovered_ok cap s s' c' hs [f; g] sg B
              (oom_safe_bin gt C cget cadd Hlossy cap par op fuel s c f g s' c' B O Hf Hg Hfuel E) Hincl
              ltac:(intros r [<-|[<-|[]]]; auto) Cg) as [Bg [Hfu [Hcnt Hops]]].
  destruct (Hops f (or_introl eq_refl)) as [Hfg Vf].
  destruct (Hops g (or_intror (or_introl eq_refl))) as [Hgg Vg].
  split; [exact Bg|]. split; [exact Hcnt|].
  destruct (oom_exact_bin gt C cget cadd Hlossy cap par op fuel sg cg f g Bg Og Hfg Hgg
              ltac:(rewrite Hfu; exact Hfuel)) as [su [cu [ru [Eu [V X']]]]].
  exists su, cu, ru. split; [exact Eu|]. split; [|exact X'].
  intros c0 Hc. destruct (V c0 Hc) as [x [y [Vx [Vy Vr]]]]. exists x, y.
  split; [apply Vf; exact Vx|]. split; [apply Vg; exact Vy | exact Vr].
Qed.

Theorem oom_recover_ite : forall cap par fuel s c f g h s' c' hs sg cg,
  BddOK s -> CacheOK cget s c -> ref_ok s f -> ref_ok s g -> ref_ok s h -> FUEL s <= fuel ->
  apply_ite_c gt C cget cadd cap par fuel s c f g h = ROom s' c' ->
  incl hs (s_handles s') ->
  (exists k, In (k, E f) hs) -> (exists k, In (k, E g) hs) -> (exists k, In (k, E h) hs) ->
  collected (with_handles s' hs) sg -> CacheOK cget sg cg ->
  BddOK sg /\ node_count sg <= node_count s /\
  exists su cu ru, apply_ite gt C cget cadd fuel sg cg f g h = Some (su, cu, ru) /\
    (forall c0, bchoice c0 -> exists x y z,
       bvalue s f c0 x /\ bvalue s g c0 y /\ bvalue s h c0 z /\ bvalue su ru c0 (if x then y else z)) /\
    exact_outcome C cget cap sg (apply_ite_c gt C cget cadd cap par fuel sg cg f g h) su cu ru.
Proof.
  intros cap par fuel s c f g h s' c' hs sg cg B O Hf Hg Hh Hfuel E Hincl Hkf Hkg Hkh Cg Og.
  destruct (recovered_ok cap s s' c' hs [f; g; h] sg B
              (oom_safe_ite gt C cget cadd Hlossy cap par fuel s c f g h s' c' B O Hf Hg Hh Hfuel E) Hincl
              ltac:(intros r [<-|[<-|[<-|[]]]]; auto) Cg) as [Bg [Hfu [Hcnt Hops]]].
  destruct (Hops f (or_introl eq_refl)) as [Hfg Vf].
  destruct (Hops g (or_intror (or_introl eq_refl))) as [Hgg Vg].
  destruct (Hops h (or_intror (or_intror (or_introl eq_refl)))) as [Hhg Vh].
  split; [exact Bg|]. split; [exact Hcnt|].
  destruct (oom_exact_ite gt C cget cadd Hlossy cap par fuel sg cg f g h Bg Og Hfg Hgg Hhg
              ltac:(rewrite Hfu; exact Hfuel)) as [su [cu [ru [Eu [V X']]]]].
  exists su, cu, ru. split; [exact Eu|]. split; [|exact X'].
  intros c0 Hc. destruct (V c0 Hc) as [x [y [z [Vx [Vy [Vz Vr]]]]]]. exists x, y, z.
  split; [apply Vf; exact Vx|]. split; [apply Vg; exact Vy|]. split; [apply Vh; exact Vz | exact Vr].
Qed.

End Recover.

(** ** The collection hypothesis is satisfiable: when the table held no garbage
    before the failed operation, a collection (no handle dropped) restores
    exactly that table *)

Lemma reach_all_handles : forall s r,
  reachable s (handle_refs s) r ->
  reachable (with_handles s (s_handles s)) (handle_refs (with_handles s (s_handles s))) r.
Proof.
  intros s r R. induction R as [r Hin|id nd e R IH E He].
  - apply reach_root. exact Hin.
  - apply (reach_child _ _ id nd e IH E He).
Qed.

Theorem gc_restores : forall s s', BddOK s -> extends s s' ->
  (forall id nd, find_node s id = Some nd -> reachable s (handle_refs s) (RN id)) ->
  collected (with_handles s' (s_handles s')) s.
Proof.
  intros s s' B X Hlive. constructor; simpl.
  - symmetry. apply (ext_kind _ _ X).
  - symmetry. apply (ext_terms _ _ X).
  - symmetry. apply (ext_v2l _ _ X).
  - symmetry. apply (ext_l2v _ _ X).
  - symmetry. apply (ext_handles _ _ X).
  - intros id nd. change (find_node (with_handles s' (s_handles s')) id) with (find_node s' id). split.
    + intros E. split; [apply (ext_nodes _ _ X id nd E)|].
      apply reach_all_handles. apply (OomGenProofs.next_reach_new s s' (OomGenProofs.next_of_extends s s' X)). apply (Hlive id nd E).
    + intros [E' R']. apply (reach_with_handles s' (s_handles s') _ (incl_refl _)) in R'.
      destruct (OomGenProofs.next_reach_old s s' (bo_wf s B) (OomGenProofs.next_of_extends s s' X) _ R') as [[nd0 E0] _].
      pose proof (ext_nodes _ _ X id nd0 E0) as E0'. rewrite E' in E0'. inversion E0'; subst. exact E0.
Qed.
