(** * The error monad of the apply algorithms, generic part: proofs (C14y)

    For the combinators of Mgr/OomGen.v ([gbind], [gjoin2], [gfin]) and their
    unbounded counterparts ([ubind], [ujoin2], [ufin]: the shapes the unbounded
    models DD/ApplyBcdd.v, DD/ZbddOps.v, DD/ZbddBool.v, DD/ApplyMtbdd.v are
    convertible to):

    - [sim] = [refines] /\ [fits] (no invariant needed): a bounded result is
      literally the unbounded result and stays within the budgets; a bounded
      failure has a full store; an unbounded result that stays within the
      budgets is delivered by the bounded run.  Two budgets: inner nodes
      ([node_count], capacity [cap]) and a second resource [m2] with capacity
      [cap2] (the terminals of an MTBDD; [m2 = fun _ => 0], [cap2 = 1] for the
      kinds with static terminals);
    - [res_safe] / [fail_safe] for an invariant [Inv] and a table order [ext]:
      never stuck, and the table left behind - by a result or by a failure -
      satisfies the invariant and extends the table before;
    - [exact_outcome], monotonicity in the capacities;
    - [intact0]: what an extension of the node table preserves for the owner
      of a handle (generic part of [intact] of Mgr/OomSafe.v). *)

From Coq Require Import List NArith PArith Bool Arith Lia FMapPositive.
From OxiVerif Require Import DD.Table DD.TableProofs DD.Build DD.BuildProofs Mgr.Oom Mgr.OomProofs.
From OxiVerif Require Import Mgr.OomGen.
Import ListNotations.

(** ** The shapes of the unbounded algorithms *)

Definition ubind {C R R' : Type} (u : option (snap * C * R)) (k : snap -> C -> R -> option (snap * C * R'))
  : option (snap * C * R') :=
  match u with
  | None => None
  | Some (s, c, x) => k s c x
  end.

Definition ujoin2 {C R1 R2 R' : Type} (u1 : option (snap * C * R1)) (urun2 : snap -> C -> option (snap * C * R2))
  (ufn : snap -> C -> R1 -> R2 -> option (snap * C * R')) : option (snap * C * R') :=
  match u1 with
  | None => None
  | Some (s1, c1, t) =>
    match urun2 s1 c1 with
    | None => None
    | Some (s2, c2, e) => ufn s2 c2 t e
    end
  end.

Definition ufin {C R R' : Type} (u : snap * R) (kc : R -> C) (kr : R -> R') : option (snap * C * R') :=
  let '(s', h) := u in Some (s', kc h, kr h).

(** ** Refinement in both directions *)

Section Sim.
Variable C : Type.
(** the second resource; it only depends on the terminal list *)
Variable m2 : snap -> nat.
Hypothesis m2_terms : forall s s', s_terms s' = s_terms s -> m2 s' = m2 s.
Variables cap cap2 : nat.

Definition within (s s' : snap) : Prop :=
  node_count s <= node_count s' <= Nat.max cap (node_count s) /\
  m2 s <= m2 s' <= Nat.max cap2 (m2 s).
Definition grown (s s' : snap) : Prop := node_count s <= node_count s' /\ m2 s <= m2 s'.
Definition full (s' : snap) : Prop := cap <= node_count s' \/ cap2 <= m2 s'.

Definition refines {R : Type} (s : snap) (rb : gres C R) (ru : option (snap * C * R)) : Prop :=
  match rb with
  | GOk s' c' r => ru = Some (s', c', r) /\ within s s'
  | GOom s' c' => grown s s' /\ full s'
  | GStuck => True
  end.

Definition fits {R : Type} (s : snap) (ru : option (snap * C * R)) (rb : gres C R) : Prop :=
  match ru with
  | Some (s', c', r) => grown s s' /\ (within s s' -> rb = GOk s' c' r)
  | None => True
  end.

Definition sim {R : Type} (s : snap) (rb : gres C R) (ru : option (snap * C * R)) : Prop :=
  refines s rb ru /\ fits s ru rb.

Lemma grown_refl : forall s, grown s s.
Proof. intros. unfold grown. lia. Qed.

Lemma grown_trans : forall s1 s2 s3, grown s1 s2 -> grown s2 s3 -> grown s1 s3.
Proof. unfold grown. intros. lia. Qed.

Lemma within_grown : forall s s', within s s' -> grown s s'.
Proof. unfold within, grown. intros. lia. Qed.

Lemma full_grown : forall s s', full s -> grown s s' -> full s'.
Proof. unfold full, grown. intros. lia. Qed.

Lemma within_refl : forall s, within s s.
Proof. intros. unfold within. lia. Qed.

Lemma within_trans : forall s1 s2 s3, within s1 s2 -> within s2 s3 -> within s1 s3.
Proof. unfold within. intros. lia. Qed.

Lemma within_split : forall s1 s2 s3, grown s1 s2 -> grown s2 s3 -> within s1 s3 ->
  within s1 s2 /\ within s2 s3.
Proof. unfold within, grown. intros. lia. Qed.

Lemma sim_here : forall R s c (r : R), sim s (GOk s c r) (Some (s, c, r)).
Proof.
  intros. split; simpl; (split; [reflexivity || apply grown_refl | try reflexivity; apply within_refl]).
Qed.

Lemma sim_stuck : forall R s, @sim R s GStuck None.
Proof. intros. split; exact I. Qed.

(** the outcome [o] of a bounded node / terminal creation against the
    unbounded creation [u] *)
Definition leaf_rel {R : Type} (s : snap) (o : option (snap * R)) (u : snap * R) : Prop :=
  grown s (fst u) /\
  match o with
  | Some x => x = u /\ within s (fst u)
  | None => full s /\ ~ within s (fst u)
  end.

Lemma leaf_same : forall R s (r : R), leaf_rel s (Some (s, r)) (s, r).
Proof. intros. split; [apply grown_refl|]. split; [reflexivity | apply within_refl]. Qed.

Lemma gfin_sim : forall R R' s c (o : option (snap * R)) u (kc : R -> C) (kr : R -> R'),
  leaf_rel s o u -> sim s (gfin s c o kc kr) (ufin u kc kr).
Proof.
  intros R R' s c o [su h] kc kr [G L]. simpl in G. unfold gfin, ufin. split.
  - destruct o as [[s' h']|]; simpl in *.
    + destruct L as [Hx W]. inversion Hx; subst. auto.
    + destruct L as [F _]. split; [apply grown_refl | exact F].
  - simpl. split; [exact G|]. intros W. destruct o as [[s' h']|]; simpl in L.
    + destruct L as [Hx _]. inversion Hx; subst. reflexivity.
    + destruct L as [_ N]. contradiction.
Qed.

Lemma gjoin2_sim : forall R1 R2 R' p s (r1 : gres C R1) u1 (run2 : snap -> C -> gres C R2) urun2
    (fin : snap -> C -> R1 -> R2 -> gres C R') ufn,
  sim s r1 u1 ->
  (forall s1 c1, sim s1 (run2 s1 c1) (urun2 s1 c1)) ->
  (forall s2 c2 t e, sim s2 (fin s2 c2 t e) (ufn s2 c2 t e)) ->
  sim s (gjoin2 p r1 run2 fin) (ujoin2 u1 urun2 ufn).
Proof.
  intros R1 R2 R' p s r1 u1 run2 urun2 fin ufn [A1 B1] H2 H3. split.
  - assert (Oom : forall s1 s2, within s s1 -> grown s1 s2 /\ full s2 -> grown s s2 /\ full s2).
    { intros s1 s2 W [G F]. split; [apply (grown_trans s s1 s2 (within_grown _ _ W) G) | exact F]. }
    unfold gjoin2, ujoin2. destruct r1 as [s1 c1 t|s1 c1|]; simpl in A1; [| |exact I].
    + destruct A1 as [-> W1]. destruct (H2 s1 c1) as [A2 _].
      destruct (run2 s1 c1) as [s2 c2 e|s2 c2|]; simpl in A2; [|apply (Oom s1 s2 W1 A2)|exact I].
      destruct A2 as [-> W2]. pose proof (within_trans _ _ _ W1 W2) as W12.
      destruct (H3 s2 c2 t e) as [A3 _].
      destruct (fin s2 c2 t e) as [s3 c3 r|s3 c3|]; simpl in A3 |- *; [|apply (Oom s2 s3 W12 A3)|exact I].
      destruct A3 as [-> W3]. split; [reflexivity | apply (within_trans _ _ _ W12 W3)].
    + destruct p; [|exact A1]. destruct (H2 s1 c1) as [A2 _]. destruct A1 as [G1 F1].
      destruct (run2 s1 c1) as [s2 c2 e|s2 c2|]; simpl in A2 |- *; [| |exact I].
      * destruct A2 as [_ W2]. pose proof (within_grown _ _ W2) as G2.
        split; [apply (grown_trans _ _ _ G1 G2) | apply (full_grown _ _ F1 G2)].
      * destruct A2 as [G2 F2]. split; [apply (grown_trans _ _ _ G1 G2) | exact F2].
  - unfold ujoin2. destruct u1 as [[[s1 c1] t]|]; [|exact I]. simpl in B1. destruct B1 as [G1 F1].
    destruct (H2 s1 c1) as [_ B2]. destruct (urun2 s1 c1) as [[[s2 c2] e]|]; [|exact I].
    simpl in B2. destruct B2 as [G2 F2]. pose proof (grown_trans _ _ _ G1 G2) as G12.
    destruct (H3 s2 c2 t e) as [_ B3]. destruct (ufn s2 c2 t e) as [[[s3 c3] r]|]; [|exact I].
    simpl in B3 |- *. destruct B3 as [G3 F3]. split; [apply (grown_trans _ _ _ G12 G3)|]. intros W.
    destruct (within_split s s2 s3 G12 G3 W) as [W12 W3].
    destruct (within_split s s1 s2 G1 G2 W12) as [W1 W2].
    unfold gjoin2. rewrite (F1 W1), (F2 W2). apply (F3 W3).
Qed.

Lemma gbind_sim : forall R R' s (r1 : gres C R) u1 (k : snap -> C -> R -> gres C R') uk,
  sim s r1 u1 -> (forall s1 c1 x, sim s1 (k s1 c1 x) (uk s1 c1 x)) ->
  sim s (gbind r1 k) (ubind u1 uk).
Proof.
  intros R R' s r1 u1 k uk H1 H2.
  apply (gjoin2_sim R unit R' false s r1 u1 (fun s1 c1 => GOk s1 c1 tt) (fun s1 c1 => Some (s1, c1, tt))
           (fun s2 c2 x _ => k s2 c2 x) (fun s2 c2 x _ => uk s2 c2 x) H1); intros; [apply sim_here | apply H2].
Qed.

(** *** the node store: [get_or_insert_cap] / [mk_node_cap] of Mgr/Oom.v *)

Lemma m2_set_nodes : forall s m, m2 (set_nodes s m) = m2 s.
Proof. intros. apply m2_terms. reflexivity. Qed.

Lemma m2_get_or_insert : forall s lvl ch, m2 (fst (get_or_insert s lvl ch)) = m2 s.
Proof.
  intros. unfold get_or_insert. destruct (find_dup s lvl ch); simpl; [reflexivity | apply m2_set_nodes].
Qed.

Lemma goi_leaf : forall s lvl ch, leaf_rel s (get_or_insert_cap cap s lvl ch) (get_or_insert s lvl ch).
Proof.
  intros s lvl ch. pose proof (m2_get_or_insert s lvl ch) as M.
  destruct (get_or_insert s lvl ch) as [s' e] eqn:Eg. cbn [fst] in M |- *.
  destruct (get_or_insert_cap_fits cap s lvl ch s' e Eg) as [Hc Hf].
  unfold leaf_rel, grown, within, full. cbn [fst]. rewrite M. split; [lia|].
  destruct (get_or_insert_cap cap s lvl ch) as [x|] eqn:Ec.
  - destruct (get_or_insert_cap_some cap s lvl ch x Ec) as [Hx Hb]. rewrite Eg in Hx. subst x.
    cbn [fst] in Hb. split; [reflexivity | lia].
  - destruct (get_or_insert_cap_none cap s lvl ch Ec) as [_ Hfull]. split; [lia|].
    intros [[_ W] _]. discriminate (Hf W).
Qed.

Lemma mk_node_leaf : forall s lvl ch, leaf_rel s (mk_node_cap cap s lvl ch) (mk_node s lvl ch).
Proof.
  intros s lvl ch. unfold mk_node_cap, mk_node.
  destruct ch as [|c0 rest]; [apply leaf_same|].
  destruct (all_equal (c0 :: rest)); [apply leaf_same | apply goi_leaf].
Qed.

(** a leaf whose result is post-processed *)
Lemma leaf_map : forall R R' s (o : option (snap * R)) u (f : R -> R'),
  leaf_rel s o u ->
  leaf_rel s (match o with Some (s', r) => Some (s', f r) | None => None end) (let '(s', r) := u in (s', f r)).
Proof.
  intros R R' s o [su r] f [G L]. split; [exact G|].
  destruct o as [[s' r']|]; simpl in *; [|exact L].
  destruct L as [Hx W]. inversion Hx; subst. auto.
Qed.

(** ** Consequences of [sim] *)

Lemma sim_never_wrong : forall R s (rb : gres C R) ru s' c' r,
  sim s rb ru -> rb = GOk s' c' r -> ru = Some (s', c', r).
Proof. intros R s rb ru s' c' r [A _] E. rewrite E in A. apply A. Qed.

Lemma sim_retry : forall R s (rb : gres C R) su cu r,
  sim s rb (Some (su, cu, r)) -> within s su -> rb = GOk su cu r.
Proof. intros R s rb su cu r [_ B] W. apply B. exact W. Qed.

Lemma sim_retry_le : forall R s (rb : gres C R) su cu r,
  sim s rb (Some (su, cu, r)) -> node_count su <= cap -> m2 su <= cap2 -> rb = GOk su cu r.
Proof. intros R s rb su cu r [_ [G F]] Hn Hm. apply F. unfold within, grown in *. lia. Qed.

End Sim.

Arguments within m2 cap cap2 s s' /.
Arguments grown m2 s s' /.
Arguments full m2 cap cap2 s' /.

(** a success is a success with every larger pair of capacities *)
Lemma sim_monotone : forall C R m2 cap cap2 cap' cap2' s (rb rb' : gres C R) ru s' c' r,
  cap <= cap' -> cap2 <= cap2' ->
  sim C m2 cap cap2 s rb ru -> sim C m2 cap' cap2' s rb' ru ->
  rb = GOk s' c' r -> rb' = GOk s' c' r.
Proof.
  intros C R m2 cap cap2 cap' cap2' s rb rb' ru s' c' r H1 H2 [A _] [_ B] E.
  rewrite E in A. destruct A as [-> W]. apply B. simpl in *. lia.
Qed.

(** ** Never stuck; the table after a result or a failure *)

Section Safe.
Variable C : Type.
Variable Inv : snap -> C -> Prop.
Variable ext : snap -> snap -> Prop.
Hypothesis ext_trans : forall s1 s2 s3, ext s1 s2 -> ext s2 s3 -> ext s1 s3.

Definition res_safe {R : Type} (Q : snap -> R -> Prop) (s : snap) (r : gres C R) : Prop :=
  match r with
  | GOk s' c' x => Inv s' c' /\ ext s s' /\ Q s' x
  | GOom s' c' => Inv s' c' /\ ext s s'
  | GStuck => False
  end.

(** the part that is proved by walking through the bounded algorithm (the
    [GOk] case follows from the refinement and the theorems about the unbounded
    algorithm) *)
Definition fail_safe {R : Type} (s : snap) (r : gres C R) : Prop :=
  match r with
  | GOk _ _ _ => True
  | GOom s' c' => Inv s' c' /\ ext s s'
  | GStuck => False
  end.

Lemma res_fail_safe : forall R Q s (r : gres C R), res_safe Q s r -> fail_safe s r.
Proof. intros R Q s [s' c' x|s' c'|]; simpl; tauto. Qed.

Lemma res_safe_not_stuck : forall R (Q : snap -> R -> Prop) s (r : gres C R), res_safe Q s r -> r <> GStuck.
Proof. intros R Q s r S E. rewrite E in S. exact S. Qed.

Lemma safe_intro : forall R (Q : snap -> R -> Prop) s (r : gres C R),
  fail_safe s r ->
  (forall s' c' x, r = GOk s' c' x -> Inv s' c' /\ ext s s' /\ Q s' x) ->
  res_safe Q s r.
Proof. intros R Q s [s' c' x|s' c'|] W H; simpl in *; auto. Qed.

Lemma res_safe_weaken : forall R (Q Q' : snap -> R -> Prop) s (r : gres C R),
  res_safe Q s r -> (forall s' x, Q s' x -> Q' s' x) -> res_safe Q' s r.
Proof. intros R Q Q' s [s' c' x|s' c'|] H HQ; simpl in *; auto. destruct H as [A [B D]]. auto. Qed.

Lemma fail_safe_here : forall R s c (x : R), fail_safe s (GOk s c x).
Proof. intros. exact I. Qed.

Lemma fail_safe_from : forall R s s1 (r : gres C R), ext s s1 -> fail_safe s1 r -> fail_safe s r.
Proof. intros R s s1 [s' c' x|s' c'|] X H; simpl in *; auto. destruct H. eauto. Qed.

Lemma gfin_safe : forall R R' s c (o : option (snap * R)) (kc : R -> C) (kr : R -> R'),
  Inv s c -> ext s s -> fail_safe s (gfin s c o kc kr).
Proof. intros R R' s c [[s' h]|] kc kr I X; simpl; auto. Qed.

Lemma gbind_safe : forall R R' (Q : snap -> R -> Prop) s (r1 : gres C R) (k : snap -> C -> R -> gres C R'),
  res_safe Q s r1 ->
  (forall s1 c1 x, Inv s1 c1 -> ext s s1 -> Q s1 x -> fail_safe s1 (k s1 c1 x)) ->
  fail_safe s (gbind r1 k).
Proof.
  intros R R' Q s r1 k H1 H2. unfold gbind. destruct r1 as [s1 c1 x|s1 c1|]; simpl in H1; [| |contradiction].
  - destruct H1 as [I1 [X1 Q1]]. apply (fail_safe_from _ s s1 _ X1). apply H2; auto.
  - exact H1.
Qed.

(** [Q1] monotone under [ext]: the first result has to survive the second branch *)
Lemma gjoin2_safe_q : forall R1 R2 R' (Q1 : snap -> R1 -> Prop) (Q2 : snap -> R2 -> Prop) p s
    (r1 : gres C R1) (run2 : snap -> C -> gres C R2) (fin : snap -> C -> R1 -> R2 -> gres C R'),
  (forall s1 s2 x, ext s1 s2 -> Q1 s1 x -> Q1 s2 x) ->
  res_safe Q1 s r1 ->
  (forall s1 c1, Inv s1 c1 -> ext s s1 -> res_safe Q2 s1 (run2 s1 c1)) ->
  (forall s2 c2 t e, Inv s2 c2 -> ext s s2 -> Q1 s2 t -> Q2 s2 e -> fail_safe s2 (fin s2 c2 t e)) ->
  fail_safe s (gjoin2 p r1 run2 fin).
Proof.
  intros R1 R2 R' Q1 Q2 p s r1 run2 fin Hm H1 H2 H3. unfold gjoin2.
  destruct r1 as [s1 c1 t|s1 c1|]; simpl in H1; [| |contradiction].
  - destruct H1 as [I1 [X1 Qt]]. specialize (H2 s1 c1 I1 X1).
    destruct (run2 s1 c1) as [s2 c2 e|s2 c2|]; simpl in H2; [| |contradiction].
    + destruct H2 as [I2 [X2 Qe]]. apply (fail_safe_from _ s s2 _ (ext_trans _ _ _ X1 X2)).
      apply H3; eauto.
    + destruct H2 as [I2 X2]. simpl. eauto.
  - destruct H1 as [I1 X1]. destruct p; [|simpl; auto].
    specialize (H2 s1 c1 I1 X1).
    destruct (run2 s1 c1) as [s2 c2 e|s2 c2|]; simpl in *; [| |contradiction].
    + destruct H2 as [I2 [X2 _]]. eauto.
    + destruct H2 as [I2 X2]. eauto.
Qed.

Lemma gjoin2_safe : forall R1 R2 R' (Q1 : snap -> R1 -> Prop) (Q2 : snap -> R2 -> Prop) p s
    (r1 : gres C R1) (run2 : snap -> C -> gres C R2) (fin : snap -> C -> R1 -> R2 -> gres C R'),
  res_safe Q1 s r1 ->
  (forall s1 c1, Inv s1 c1 -> ext s s1 -> res_safe Q2 s1 (run2 s1 c1)) ->
  (forall s2 c2 t e, Inv s2 c2 -> ext s s2 -> fail_safe s2 (fin s2 c2 t e)) ->
  fail_safe s (gjoin2 p r1 run2 fin).
Proof.
  intros R1 R2 R' Q1 Q2 p s r1 run2 fin H1 H2 H3.
  apply (gjoin2_safe_q R1 R2 R' (fun _ _ => True) (fun _ _ => True)); auto.
  - apply (res_safe_weaken R1 Q1); auto.
  - intros s1 c1 I1 X1. apply (res_safe_weaken R2 Q2); auto.
Qed.

End Safe.

Arguments res_safe {C} Inv ext {R} Q s r.
Arguments fail_safe {C} Inv ext {R} s r.

(** ** Exactness: the bounded run delivers the unbounded result exactly when it
    stays within the budgets, and fails (leaving a safe table, store full)
    otherwise *)

Section Exact.
Variable C : Type.
Variable m2 : snap -> nat.
Variables cap cap2 : nat.
Variable Inv : snap -> C -> Prop.
Variable ext : snap -> snap -> Prop.

Definition failed_state (s s' : snap) (c' : C) : Prop :=
  Inv s' c' /\ ext s s' /\ grown m2 s s' /\ full m2 cap cap2 s'.

Definition exact_outcome {R : Type} (s : snap) (rb : gres C R) (su : snap) (cu : C) (ru : R) : Prop :=
  (within m2 cap cap2 s su -> rb = GOk su cu ru) /\
  (Nat.max cap (node_count s) < node_count su \/ Nat.max cap2 (m2 s) < m2 su ->
   exists s' c', rb = GOom s' c' /\ failed_state s s' c').

(** a result needs no walk: it is the result of the unbounded run, and the
    theorem about that run says what holds of it; the walk through the bounded
    algorithm has to establish [fail_safe] only *)
Lemma safe_by_sim : forall R (Q : snap -> R -> Prop) s (rb : gres C R) ru,
  sim C m2 cap cap2 s rb ru ->
  (exists s1 c1 r1, ru = Some (s1, c1, r1) /\ Inv s1 c1 /\ ext s s1 /\ Q s1 r1) ->
  fail_safe Inv ext s rb -> res_safe Inv ext Q s rb.
Proof.
  intros R Q s rb ru M [s1 [c1 [r1 [E1 P]]]] W. apply safe_intro; [exact W|].
  intros s' c' x E. rewrite (sim_never_wrong C m2 cap cap2 R s rb ru s' c' x M E) in E1.
  inversion E1; subst. exact P.
Qed.

Lemma failed_intro : forall R (Q : snap -> R -> Prop) s s' c' ru,
  res_safe Inv ext Q s (GOom s' c') -> sim C m2 cap cap2 s (@GOom C R s' c') ru -> failed_state s s' c'.
Proof.
  intros R Q s s' c' ru [I X] [[G F] _]. split; [exact I|]. split; [exact X|]. split; assumption.
Qed.

Lemma exact_intro : forall R (Q : snap -> R -> Prop) s (rb : gres C R) su cu ru,
  res_safe Inv ext Q s rb -> sim C m2 cap cap2 s rb (Some (su, cu, ru)) -> exact_outcome s rb su cu ru.
Proof.
  intros R Q s rb su cu ru S [A B]. split; [apply B|].
  intros Hbig. destruct rb as [s' c' r|s' c'|]; [| |contradiction].
  - exfalso. simpl in A. destruct A as [Eu W]. inversion Eu; subst. simpl in W. lia.
  - exists s', c'. split; [reflexivity|]. apply (failed_intro R Q s s' c' (Some (su, cu, ru)) S).
    split; assumption.
Qed.

(** nothing ever disappears from a table, so the lower bounds of [within] hold
    of every unbounded result *)
Lemma exact_upper : forall R (Q : snap -> R -> Prop) s (rb : gres C R) su cu ru,
  res_safe Inv ext Q s rb -> sim C m2 cap cap2 s rb (Some (su, cu, ru)) ->
  (node_count su <= Nat.max cap (node_count s) /\ m2 su <= Nat.max cap2 (m2 s) -> rb = GOk su cu ru) /\
  (Nat.max cap (node_count s) < node_count su \/ Nat.max cap2 (m2 s) < m2 su ->
   exists s' c', rb = GOom s' c' /\ failed_state s s' c').
Proof.
  intros R Q s rb su cu ru S M. destruct (exact_intro R Q s rb su cu ru S M) as [A1 A2].
  split; [|exact A2]. intros [Hn Hm]. apply A1.
  destruct M as [_ [[Gn Gm] _]]. simpl. lia.
Qed.

(** failing or not is decided by the unbounded run: it does not depend on the recursor *)
Lemma exact_code : forall R s (rb rb' : gres C R) su cu ru,
  grown m2 s su ->
  exact_outcome s rb su cu ru -> exact_outcome s rb' su cu ru -> gres_code rb = gres_code rb'.
Proof.
  intros R s rb rb' su cu ru G [A1 B1] [A2 B2]. simpl in G.
  destruct (le_lt_dec (node_count su) (Nat.max cap (node_count s))) as [Hf1|Hb1].
  - destruct (le_lt_dec (m2 su) (Nat.max cap2 (m2 s))) as [Hf2|Hb2].
    + rewrite A1, A2 by (simpl; lia). reflexivity.
    + destruct (B1 (or_intror Hb2)) as [s1 [c1 [-> _]]]. destruct (B2 (or_intror Hb2)) as [s2 [c2 [-> _]]].
      reflexivity.
  - destruct (B1 (or_introl Hb1)) as [s1 [c1 [-> _]]]. destruct (B2 (or_introl Hb1)) as [s2 [c2 [-> _]]].
    reflexivity.
Qed.

End Exact.

(** ** What an extension of the node table preserves (kind-independent part) *)

(** [s'] stores every node of [s] unchanged and has the same handles, order
    and variables ([extends] of DD/BuildProofs.v and [mext] of
    DD/ApplyMtbddBase.v without their clause on the terminals) *)
Record next (s s' : snap) : Prop := mkNext {
  nx_v2l : s_v2l s' = s_v2l s;
  nx_l2v : s_l2v s' = s_l2v s;
  nx_handles : s_handles s' = s_handles s;
  nx_nodes : forall id nd, find_node s id = Some nd -> find_node s' id = Some nd
}.

Lemma next_of_extends : forall s s', extends s s' -> next s s'.
Proof. intros s s' X. constructor; apply X. Qed.

Lemma next_handle_refs : forall s s', next s s' -> handle_refs s' = handle_refs s.
Proof. intros s s' X. unfold handle_refs. rewrite (nx_handles _ _ X). reflexivity. Qed.

Lemma next_reach_old : forall s s', WF s -> next s s' ->
  forall r, reachable s' (handle_refs s') r -> ref_ok s r /\ reachable s (handle_refs s) r.
Proof.
  intros s s' H X r R. induction R as [r Hin|id nd e R IH E He].
  - rewrite (next_handle_refs s s' X) in Hin. split; [|apply reach_root; exact Hin].
    unfold handle_refs in Hin. apply in_map_iff in Hin. destruct Hin as [h [<- Hh]].
    apply (wf_handles s H h Hh).
  - destruct IH as [[nd0 E0] R0].
    pose proof (nx_nodes _ _ X id nd0 E0) as E0'. rewrite E in E0'. inversion E0'; subst nd0.
    split; [apply (wf_child s H id nd e E0 He) | apply (reach_child s _ id nd e R0 E0 He)].
Qed.

Lemma next_reach_new : forall s s', next s s' ->
  forall r, reachable s (handle_refs s) r -> reachable s' (handle_refs s') r.
Proof.
  intros s s' X r R. induction R as [r Hin|id nd e R IH E He].
  - apply reach_root. rewrite (next_handle_refs s s' X). exact Hin.
  - apply (reach_child s' _ id nd e IH (nx_nodes _ _ X id nd E) He).
Qed.

(** the state [s'] left by an operation that started in [s] (in particular by
    one that failed), for every owner of a handle: kind-independent part *)
Record intact0 (s s' : snap) : Prop := mkIntact0 {
  (* the handle list is unchanged *)
  i0_handles : s_handles s' = s_handles s;
  (* same variables and order *)
  i0_order : s_v2l s' = s_v2l s /\ s_l2v s' = s_l2v s;
  (* every stored node is still stored, unchanged *)
  i0_nodes : forall id nd, find_node s id = Some nd -> find_node s' id = Some nd;
  (* the nodes that were added are garbage: unreachable from every handle *)
  i0_garbage : forall id, find_node s id = None -> ~ reachable s' (handle_refs s') (RN id);
  (* the live part of the diagram is exactly what it was *)
  i0_live : forall r, reachable s' (handle_refs s') r <-> reachable s (handle_refs s) r
}.

Theorem next_intact0 : forall s s', WF s -> next s s' -> intact0 s s'.
Proof.
  intros s s' H X. constructor.
  - apply (nx_handles _ _ X).
  - split; [apply (nx_v2l _ _ X) | apply (nx_l2v _ _ X)].
  - apply (nx_nodes _ _ X).
  - intros id En R. destruct (next_reach_old s s' H X _ R) as [[nd E] _]. congruence.
  - intros r. split; [intros R; apply (next_reach_old s s' H X _ R) | apply (next_reach_new s s' X)].
Qed.
