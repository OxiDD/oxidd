(** * Out-of-memory behaviour of the MTBDD apply algorithms (Mgr/OomMtbdd.v), part 1

    Facts that need no invariant (every table, cache, fuel, operand order and
    both capacities): [mt_*_sim] - the generic refinement [sim] of
    Mgr/OomGenProofs.v instantiated with the TWO budgets of an MTBDD manager:
    inner nodes ([node_count], capacity [cap]) and terminals ([term_count],
    capacity [tcap]):

    - when the bounded algorithm returns [GOk s' c' r] the unbounded algorithm
      of DD/ApplyMtbdd.v returns literally [Some (s', c', r)], and at most [cap]
      nodes / [tcap] terminals are stored unless no node / terminal was added;
    - when it returns [GOom s' c'] no node and no terminal has disappeared and
      one of the two stores is full;
    - when the unbounded algorithm returns a table that fits both budgets, the
      bounded one returns exactly that result.

    The invariant-dependent part is in Mgr/OomMtbddSafe.v. *)

From Coq Require Import List NArith ZArith PArith Bool Arith Lia FMapPositive.
From OxiVerif Require Import DD.Table DD.TableProofs DD.Sem DD.Build DD.BuildProofs
  DD.Apply DD.ApplyMtbdd DD.ApplyMtbddBase DD.ApplyMtbddProofs DD.ApplyMtbddIte DD.ApplyMtbddRestrict
  Num.I64 Mgr.Oom Mgr.OomProofs.
From OxiVerif Require Import Mgr.OomGen Mgr.OomGenProofs.
From OxiVerif Require Import Mgr.OomMtbdd.
Import ListNotations.

(** ** The second resource: the number of stored terminals *)

Lemma term_count_terms : forall s s' : snap, s_terms s' = s_terms s -> term_count s' = term_count s.
Proof. intros s s' E. unfold term_count. rewrite E. reflexivity. Qed.

Lemma term_count_set_terms : forall s l, term_count (set_terms s l) = length l.
Proof. reflexivity. Qed.

(** the terminal store does not touch the node store *)
Lemma node_count_set_terms : forall s l, node_count (set_terms s l) = node_count s.
Proof. reflexivity. Qed.

(** [get_terminal] adds at most one terminal and no node *)
Lemma get_terminal_counts : forall s v s' r, get_terminal s v = (s', r) ->
  node_count s' = node_count s /\
  (term_count s' = term_count s \/ term_count s' = S (term_count s)).
Proof.
  intros s v s' r. unfold get_terminal.
  destruct (rassoc_N (s_terms s) (code v)); intros E; inversion E; subst; clear E.
  - auto.
  - rewrite node_count_set_terms, term_count_set_terms. simpl. auto.
Qed.

Lemma get_terminal_cap_some : forall tcap s v x, get_terminal_cap tcap s v = Some x ->
  x = get_terminal s v /\ term_count (fst x) <= Nat.max tcap (term_count s).
Proof.
  intros tcap s v x. unfold get_terminal_cap, get_terminal.
  destruct (rassoc_N (s_terms s) (code v)) as [t|].
  - intros E. inversion E; subst. simpl. split; [reflexivity | lia].
  - destruct (Nat.ltb_spec (term_count s) tcap) as [Hlt|Hge]; [|discriminate].
    intros E. inversion E; subst. split; [reflexivity|].
    simpl fst. rewrite term_count_set_terms. simpl. unfold term_count in *. lia.
Qed.

(** a failure: the value is new, all [tcap] slots are in use *)
Lemma get_terminal_cap_none : forall tcap s v, get_terminal_cap tcap s v = None ->
  rassoc_N (s_terms s) (code v) = None /\ tcap <= term_count s.
Proof.
  intros tcap s v. unfold get_terminal_cap.
  destruct (rassoc_N (s_terms s) (code v)) as [t|]; [discriminate|].
  destruct (Nat.ltb_spec (term_count s) tcap) as [Hlt|Hge]; [discriminate|].
  intros _. split; [reflexivity | exact Hge].
Qed.

(** [Err(OutOfMemory)] iff the value is new and the store is full (the shape of
    [C05_term_get_oom_iff]) *)
Theorem get_terminal_cap_oom_iff : forall tcap s v,
  get_terminal_cap tcap s v = None <->
  rassoc_N (s_terms s) (code v) = None /\ tcap <= term_count s.
Proof.
  intros tcap s v. split; [apply get_terminal_cap_none|].
  intros [E Hge]. unfold get_terminal_cap. rewrite E.
  destruct (Nat.ltb_spec (term_count s) tcap); [lia | reflexivity].
Qed.

(** a stored value is found whatever the capacity *)
Lemma get_terminal_cap_found : forall tcap s v t, rassoc_N (s_terms s) (code v) = Some t ->
  get_terminal_cap tcap s v = Some (s, RT t) /\ get_terminal s v = (s, RT t).
Proof. intros tcap s v t E. unfold get_terminal_cap, get_terminal. rewrite E. auto. Qed.

Section Sim.
Variable gt : ref -> ref -> bool.
Variable C : Type.
Variable cget : C -> N -> list ref -> option ref.
Variable cadd : C -> N -> list ref -> ref -> C.
Variable cap : nat.
Variable tcap : nat.

Notation SIM := (sim C term_count cap tcap).
Notation LEAF := (leaf_rel term_count cap tcap).

(** ** Leaves *)

Lemma get_terminal_leaf : forall s v, LEAF s (get_terminal_cap tcap s v) (get_terminal s v).
Proof.
  intros s v. unfold get_terminal_cap, get_terminal.
  destruct (rassoc_N (s_terms s) (code v)) as [t|]; [apply leaf_same|].
  split.
  - simpl. rewrite node_count_set_terms, term_count_set_terms. simpl. unfold term_count. lia.
  - destruct (Nat.ltb_spec (term_count s) tcap) as [Hlt|Hge]; simpl;
      rewrite node_count_set_terms, term_count_set_terms; simpl; unfold term_count in *.
    + split; [reflexivity | lia].
    + split; [right; exact Hge | lia].
Qed.

Lemma mk_node_leaf_m : forall s lvl ch, LEAF s (mk_node_cap cap s lvl ch) (mk_node s lvl ch).
Proof. intros. apply mk_node_leaf. exact term_count_terms. Qed.

Lemma goi_leaf_m : forall s lvl ch, LEAF s (get_or_insert_cap cap s lvl ch) (get_or_insert s lvl ch).
Proof. intros. apply goi_leaf. exact term_count_terms. Qed.

(** ** [terminal_bin]: the bounded version against [mt_tb] *)

(** the finished result, if any, as a leaf outcome *)
Definition tb_done (oc : option (snap * ref)) : option mtb_res :=
  match oc with Some (s', r) => Some (MDone s' r) | None => None end.

(** [oc] = outcome of the bounded [terminal_bin], [u] = result of [mt_tb]: the
    normalised triple is the same and cannot fail; a finished result is a leaf
    (an existing edge, or [get_terminal(..)?]) *)
Definition tb_rel (s : snap) (oc : option mtb_res) (u : mtb_res) : Prop :=
  match u with
  | MBin o a b => oc = Some (MBin o a b)
  | MDone s' r => exists o, oc = tb_done o /\ LEAF s o (s', r)
  end.

Lemma tb_rel_here : forall s r, tb_rel s (Some (MDone s r)) (MDone s r).
Proof. intros s r. exists (Some (s, r)). split; [reflexivity | apply leaf_same]. Qed.

Lemma tb_rel_val : forall s v, tb_rel s (done_val_c tcap s v) (done_val s v).
Proof.
  intros s v. unfold done_val_c, done_val. pose proof (get_terminal_leaf s v) as L.
  destruct (get_terminal s v) as [s' r]. exists (get_terminal_cap tcap s v). split; [|exact L].
  destruct (get_terminal_cap tcap s v) as [[s2 r2]|]; reflexivity.
Qed.

Lemma tb_rel_bin : forall s o a b, tb_rel s (Some (MBin o a b)) (MBin o a b).
Proof. reflexivity. Qed.

Ltac tb_arm :=
  repeat match goal with
  | |- tb_rel _ (Some (MDone ?s ?r)) (MDone ?s ?r) => apply tb_rel_here
  | |- tb_rel _ (done_val_c _ _ _) (done_val _ _) => apply tb_rel_val
  | |- tb_rel _ (Some (MBin _ _ _)) (MBin _ _ _) => apply tb_rel_bin
  | |- tb_rel _ (if ?b then _ else _) (if ?b then _ else _) => destruct b
  | |- tb_rel _ (match ?x with Some _ => _ | None => _ end) (match ?x with Some _ => _ | None => _ end) =>
      destruct x as [[| |]|]
  end.

Theorem mt_tb_rel : forall s op f g vf vg,
  tb_rel s (mt_tb_c tcap gt s op f g vf vg) (mt_tb gt s op f g vf vg).
Proof.
  intros s op f g vf vg. destruct op; unfold mt_tb_c, mt_tb;
    destruct vf as [nf|a], vg as [ng|b]; tb_arm.
Qed.

(** ** Unfolding lemmas *)

(** the common tail of the three unbounded algorithms (they are convertible to
    this [ujoin2]/[ufin] shape) *)
Definition mt_step_u (u1 : option (snap * C * ref)) (urun2 : snap -> C -> option (snap * C * ref))
    (lvl : nat) (code : N) (key : list ref) : option (snap * C * ref) :=
  ujoin2 u1 urun2
    (fun s2 c2 t e => ufin (mk_node s2 lvl [E t; E e]) (fun h => cadd c2 code key (eref h)) (fun h => eref h)).

Lemma mt_apply_bin_c_S : forall n s c op f g,
  mt_apply_bin_c gt C cget cadd cap tcap (S n) s c op f g =
  match mt_view s f, mt_view s g with
  | Some vf, Some vg =>
    match mt_tb_c tcap gt s op f g vf vg with
    | None => GOom s c
    | Some (MDone s' h) => GOk s' c h
    | Some (MBin o a b) =>
      match cget c (mop_code o) [a; b] with
      | Some h => GOk s c h
      | None =>
        match omin (olevel vf) (olevel vg) with
        | None => GStuck
        | Some lvl =>
          match mt_cof f vf lvl, mt_cof g vg lvl with
          | Some (f0, f1), Some (g0, g1) =>
            mt_step_c C cadd cap (mt_apply_bin_c gt C cget cadd cap tcap n s c op f0 g0)
                      (fun s1 c1 => mt_apply_bin_c gt C cget cadd cap tcap n s1 c1 op f1 g1)
                      lvl (mop_code o) [a; b]
          | _, _ => GStuck
          end
        end
      end
    end
  | _, _ => GStuck
  end.
Proof. reflexivity. Qed.

Lemma mt_apply_ite_c_S : forall n s c f g h,
  mt_apply_ite_c C cget cadd cap (S n) s c f g h =
    if ref_eqb g h then GOk s c g
    else
      match mt_view s f with
      | None => GStuck
      | Some (MT t) => GOk s c (if i64_is_zero t then h else g)
      | Some (MI fnode) =>
        match cget c mcode_ite [f; g; h] with
        | Some r => GOk s c r
        | None =>
          match mt_view s g, mt_view s h with
          | Some vg, Some vh =>
            match omin (omin (Some (nstored fnode)) (olevel vg)) (olevel vh) with
            | None => GStuck
            | Some lvl =>
              match cof2 f fnode lvl, mt_cof g vg lvl, mt_cof h vh lvl with
              | Some (ft, fe), Some (gt', ge), Some (ht, he) =>
                mt_step_c C cadd cap (mt_apply_ite_c C cget cadd cap n s c ft gt' ht)
                          (fun s1 c1 => mt_apply_ite_c C cget cadd cap n s1 c1 fe ge he)
                          lvl mcode_ite [f; g; h]
              | _, _, _ => GStuck
              end
            end
          | _, _ => GStuck
          end
        end
      end.
Proof. reflexivity. Qed.

Lemma mt_restrict_c_S : forall n s c f vars,
  mt_restrict_c C cget cadd cap (S n) s c f vars =
    match mt_view s f, mt_view s vars with
    | Some (MI fnode), Some (MI vnode) =>
      match mt_restrict_inner (rin_fuel s) s f fnode (nstored fnode) vars vnode with
      | None => GStuck
      | Some (RDone r) => GOk s c r
      | Some (RRec vars' f' fnode') =>
        match cget c mcode_restrict [f'; vars'] with
        | Some r => GOk s c r
        | None =>
          match nchildren fnode' with
          | [ft; fe] =>
            mt_step_c C cadd cap (mt_restrict_c C cget cadd cap n s c (eref ft) vars')
                      (fun s1 c1 => mt_restrict_c C cget cadd cap n s1 c1 (eref fe) vars')
                      (nstored fnode') mcode_restrict [f'; vars']
          | _ => GStuck
          end
        end
      end
    | Some _, Some _ => GOk s c f
    | _, _ => GStuck
    end.
Proof. reflexivity. Qed.

(** ** The walks *)

Lemma mt_step_sim : forall s (r1 : mres_c C) u1 (run2 : snap -> C -> mres_c C) urun2 lvl code key,
  SIM s r1 u1 -> (forall s1 c1, SIM s1 (run2 s1 c1) (urun2 s1 c1)) ->
  SIM s (mt_step_c C cadd cap r1 run2 lvl code key) (mt_step_u u1 urun2 lvl code key).
Proof.
  intros s r1 u1 run2 urun2 lvl code key H1 H2. unfold mt_step_c, mt_step_u.
  apply gjoin2_sim; [exact H1 | exact H2|].
  intros s2 c2 t e. apply gfin_sim. apply mk_node_leaf_m.
Qed.

(** a finished result of [terminal_bin] *)
Lemma tb_done_sim : forall s (c : C) o s' r, LEAF s o (s', r) ->
  SIM s (match tb_done o with
         | None => GOom s c
         | Some (MDone s2 h) => GOk s2 c h
         | Some (MBin _ _ _) => GStuck
         end) (Some (s', c, r)).
Proof.
  intros s c o s' r L.
  pose proof (gfin_sim C term_count cap tcap ref ref s c o (s', r) (fun _ => c) (fun h => h) L) as G.
  destruct o as [[s2 r2]|]; exact G.
Qed.

Theorem mt_apply_bin_sim : forall fuel s c op f g,
  SIM s (mt_apply_bin_c gt C cget cadd cap tcap fuel s c op f g) (mt_apply_bin gt C cget cadd fuel s c op f g).
Proof.
  induction fuel as [|n IH]; intros s c op f g; [apply sim_stuck|].
  rewrite mt_apply_bin_c_S. cbn [mt_apply_bin].
  destruct (mt_view s f) as [vf|]; [|apply sim_stuck].
  destruct (mt_view s g) as [vg|]; [|apply sim_stuck].
  pose proof (mt_tb_rel s op f g vf vg) as T.
  destruct (mt_tb gt s op f g vf vg) as [s' r|o a b]; simpl in T.
  - destruct T as [oc [-> L]].
    pose proof (tb_done_sim s c oc s' r L) as G.
    destruct oc as [[s2 r2]|]; exact G.
  - rewrite T.
    destruct (cget c (mop_code o) [a; b]); [apply sim_here|].
    destruct (omin (olevel vf) (olevel vg)) as [lvl|]; [|apply sim_stuck].
    destruct (mt_cof f vf lvl) as [[f0 f1]|]; [|apply sim_stuck].
    destruct (mt_cof g vg lvl) as [[g0 g1]|]; [|apply sim_stuck].
    apply (mt_step_sim s _ _ _ (fun s1 c1 => mt_apply_bin gt C cget cadd n s1 c1 op f1 g1) lvl (mop_code o) [a; b]);
      [apply IH | intros; apply IH].
Qed.

Theorem mt_apply_ite_sim : forall fuel s c f g h,
  SIM s (mt_apply_ite_c C cget cadd cap fuel s c f g h) (mt_apply_ite C cget cadd fuel s c f g h).
Proof.
  induction fuel as [|n IH]; intros s c f g h; [apply sim_stuck|].
  rewrite mt_apply_ite_c_S. cbn [mt_apply_ite].
  destruct (ref_eqb g h); [apply sim_here|].
  destruct (mt_view s f) as [[fnode|t]|]; [| apply sim_here | apply sim_stuck].
  destruct (cget c mcode_ite [f; g; h]); [apply sim_here|].
  destruct (mt_view s g) as [vg|]; [|apply sim_stuck].
  destruct (mt_view s h) as [vh|]; [|apply sim_stuck].
  destruct (omin (omin (Some (nstored fnode)) (olevel vg)) (olevel vh)) as [lvl|]; [|apply sim_stuck].
  destruct (cof2 f fnode lvl) as [[ft fe]|]; [|apply sim_stuck].
  destruct (mt_cof g vg lvl) as [[gt' ge]|]; [|apply sim_stuck].
  destruct (mt_cof h vh lvl) as [[ht he]|]; [|apply sim_stuck].
  apply (mt_step_sim s _ _ _ (fun s1 c1 => mt_apply_ite C cget cadd n s1 c1 fe ge he) lvl mcode_ite [f; g; h]);
    [apply IH | intros; apply IH].
Qed.

Theorem mt_restrict_sim : forall fuel s c f vars,
  SIM s (mt_restrict_c C cget cadd cap fuel s c f vars) (mt_restrict C cget cadd fuel s c f vars).
Proof.
  induction fuel as [|n IH]; intros s c f vars; [apply sim_stuck|].
  rewrite mt_restrict_c_S. cbn [mt_restrict].
  destruct (mt_view s f) as [[fnode|tf]|]; [| |apply sim_stuck].
  2:{ destruct (mt_view s vars) as [[vnode|tv]|]; [apply sim_here | apply sim_here | apply sim_stuck]. }
  destruct (mt_view s vars) as [[vnode|tv]|]; [| apply sim_here | apply sim_stuck].
  destruct (mt_restrict_inner (rin_fuel s) s f fnode (nstored fnode) vars vnode) as [[r|vars' f' fnode']|];
    [apply sim_here | | apply sim_stuck].
  destruct (cget c mcode_restrict [f'; vars']); [apply sim_here|].
  destruct (nchildren fnode') as [|ft [|fe [|x rest]]]; try apply sim_stuck.
  apply (mt_step_sim s _ _ _ (fun s1 c1 => mt_restrict C cget cadd n s1 c1 (eref fe) vars')
           (nstored fnode') mcode_restrict [f'; vars']);
    [apply IH | intros; apply IH].
Qed.

End Sim.

(** ** Constants and variables *)

Theorem mt_const_cap_leaf : forall cap tcap s v,
  leaf_rel term_count cap tcap s (mt_const_cap tcap s v) (mt_const s v).
Proof. intros. apply get_terminal_leaf. Qed.

(** the unbounded [var_edge] in the shape of [mt_var_steps] (cache type [unit]) *)
Definition mt_var_steps_u (s : snap) (lvl : nat) : option (snap * unit * ref) :=
  ubind (ufin (get_terminal s i64_one) (fun _ => tt) (fun t => t))
    (fun s1 _ t =>
       ubind (ufin (get_terminal s1 i64_zero) (fun _ => tt) (fun e => e))
         (fun s2 _ e => ufin (get_or_insert s2 lvl [E t; E e]) (fun _ => tt) (fun h => eref h))).

Lemma mt_var_U : forall s v,
  mt_var s v =
  match nth_error (s_v2l s) v with
  | Some lvl => match mt_var_steps_u s lvl with Some (s', _, r) => Some (s', r) | None => None end
  | None => None
  end.
Proof.
  intros s v. unfold mt_var, mt_var_steps_u, ubind, ufin.
  destruct (nth_error (s_v2l s) v) as [lvl|]; [|reflexivity].
  destruct (get_terminal s i64_one) as [s1 t].
  destruct (get_terminal s1 i64_zero) as [s2 e].
  destruct (get_or_insert s2 lvl [E t; E e]) as [s3 h]. reflexivity.
Qed.

Theorem mt_var_steps_sim : forall cap tcap s lvl,
  sim unit term_count cap tcap s (mt_var_steps cap tcap s lvl) (mt_var_steps_u s lvl).
Proof.
  intros cap tcap s lvl. unfold mt_var_steps, mt_var_steps_u.
  apply gbind_sim; [apply gfin_sim; apply get_terminal_leaf|].
  intros s1 c1 t. apply gbind_sim; [apply gfin_sim; apply get_terminal_leaf|].
  intros s2 c2 e. apply gfin_sim. apply goi_leaf_m.
Qed.

(** the unbounded [var_edge] never fails to produce a table once the variable exists *)
Lemma mt_var_steps_u_some : forall s lvl, exists s' r, mt_var_steps_u s lvl = Some (s', tt, r).
Proof.
  intros s lvl. unfold mt_var_steps_u, ubind, ufin.
  destruct (get_terminal s i64_one) as [s1 t].
  destruct (get_terminal s1 i64_zero) as [s2 e].
  destruct (get_or_insert s2 lvl [E t; E e]) as [s3 h]. eauto.
Qed.

(** ** [apply_ite] and [restrict] never touch the terminal store

    The bounded versions do not even take [tcap]; since [mt_*_sim] holds for
    EVERY terminal capacity, the result table of the unbounded run has exactly
    the terminals it started with (as many: the count is what the budget sees). *)

Lemma mt_apply_ite_terms : forall C cget cadd fuel s c f g h su cu ru,
  mt_apply_ite C cget cadd fuel s c f g h = Some (su, cu, ru) -> term_count su = term_count s.
Proof.
  intros C cget cadd fuel s c f g h su cu ru E.
  pose proof (mt_apply_ite_sim C cget cadd (node_count su) (term_count su) fuel s c f g h) as M1.
  pose proof (mt_apply_ite_sim C cget cadd (node_count su) 0 fuel s c f g h) as M0.
  rewrite E in M1, M0. destruct M1 as [_ [G F]]. simpl in G.
  assert (Eb : mt_apply_ite_c C cget cadd (node_count su) fuel s c f g h = GOk su cu ru)
    by (apply F; simpl; lia).
  rewrite Eb in M0. destruct M0 as [[_ W] _]. simpl in W. lia.
Qed.

Lemma mt_restrict_terms : forall C cget cadd fuel s c f vars su cu ru,
  mt_restrict C cget cadd fuel s c f vars = Some (su, cu, ru) -> term_count su = term_count s.
Proof.
  intros C cget cadd fuel s c f vars su cu ru E.
  pose proof (mt_restrict_sim C cget cadd (node_count su) (term_count su) fuel s c f vars) as M1.
  pose proof (mt_restrict_sim C cget cadd (node_count su) 0 fuel s c f vars) as M0.
  rewrite E in M1, M0. destruct M1 as [_ [G F]]. simpl in G.
  assert (Eb : mt_restrict_c C cget cadd (node_count su) fuel s c f vars = GOk su cu ru)
    by (apply F; simpl; lia).
  rewrite Eb in M0. destruct M0 as [[_ W] _]. simpl in W. lia.
Qed.

(** a failure of [apply_ite] / [restrict] is a failure of the NODE store *)
Lemma mt_apply_ite_oom_nodes : forall C cget cadd cap fuel s c f g h s' c',
  mt_apply_ite_c C cget cadd cap fuel s c f g h = GOom s' c' ->
  node_count s <= node_count s' /\ cap <= node_count s'.
Proof.
  intros C cget cadd cap fuel s c f g h s' c' E.
  pose proof (mt_apply_ite_sim C cget cadd cap (S (term_count s')) fuel s c f g h) as M.
  rewrite E in M. destruct M as [[G F] _]. simpl in G, F. lia.
Qed.

Lemma mt_restrict_oom_nodes : forall C cget cadd cap fuel s c f vars s' c',
  mt_restrict_c C cget cadd cap fuel s c f vars = GOom s' c' ->
  node_count s <= node_count s' /\ cap <= node_count s'.
Proof.
  intros C cget cadd cap fuel s c f vars s' c' E.
  pose proof (mt_restrict_sim C cget cadd cap (S (term_count s')) fuel s c f vars) as M.
  rewrite E in M. destruct M as [[G F] _]. simpl in G, F. lia.
Qed.
