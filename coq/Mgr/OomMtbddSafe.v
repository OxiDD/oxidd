(** * Out-of-memory behaviour of the MTBDD apply algorithms (Mgr/OomMtbdd.v), part 2

    Under the invariant of the C10 theorems for MTBDDs ([MtOK], [MCacheOK],
    operands are valid references, standard fuel; [restrict]: the second operand
    is a [Cube]):

    - [mt_*_c_safe]: the bounded algorithms never get stuck, and whatever they
      return - result or out-of-memory - the table they leave is a well-formed
      MTBDD table that extends ([mext]: nodes AND terminals may have been added)
      the one they started from, with a correct cache; [apply_ite] and
      [restrict] moreover leave the number of terminals unchanged ([mext0]);
    - [intact_m]: what "extension" means for the owner of a handle;
    - [moom_*]: the C14 statements for [mt_apply_bin_c] (all six operators),
      [mt_apply_ite_c], [mt_restrict_c], [mt_const_cap], [mt_var_cap], with the
      two budgets [cap] (inner nodes) and [tcap] (terminals). *)

From Coq Require Import List NArith ZArith PArith Bool Arith Lia FMapPositive.
From OxiVerif Require Import DD.Table DD.TableProofs DD.Canon DD.Sem DD.Build DD.BuildProofs
  DD.Apply DD.ApplyProofs DD.ApplyEvalProofs DD.ApplyMtbdd DD.ApplyMtbddBase DD.ApplyMtbddProofs
  DD.ApplyMtbddIte DD.ApplyMtbddRestrict DD.ApplyMtbddTop Num.I64 Num.I64Proofs Mgr.Oom Mgr.OomProofs.
From OxiVerif Require Import Mgr.OomGen Mgr.OomGenProofs.
From OxiVerif Require Import Mgr.OomMtbdd Mgr.OomMtbddProofs.
Import ListNotations.

(** ** What an extension preserves (MTBDD: the terminal store may have grown) *)

Record intact_m (s s' : snap) : Prop := mkIntactM {
  (* handles, order, stored nodes unchanged; added nodes unreachable; live part unchanged *)
  im_base : intact0 s s';
  (* every terminal is still a terminal, with the same value *)
  im_terms : forall t c, term_val s t = Some c -> term_val s' t = Some c;
  (* every valid reference stays valid and means the same function, under every fuel *)
  im_sem : forall r, ref_ok s r -> ref_ok s' r /\ forall k c0, semk s' k r c0 = semk s k r c0;
  (* every handle has the same value under every assignment *)
  im_handle_sem : forall h, In h (s_handles s) ->
             forall c0, sem_edge s' (snd h) c0 = sem_edge s (snd h) c0
}.

Lemma next_of_mext : forall s s', mext s s' -> next s s'.
Proof.
  intros s s' X. constructor;
    [apply (mx_v2l _ _ X) | apply (mx_l2v _ _ X) | apply (mx_handles _ _ X) | apply (mx_nodes _ _ X)].
Qed.

Theorem mext_intact_m : forall s s', MtOK s -> mext s s' -> intact_m s s'.
Proof.
  intros s s' B X. pose proof (mo_wf s B) as H. constructor.
  - apply (next_intact0 s s' H (next_of_mext s s' X)).
  - apply (mx_terms _ _ X).
  - intros r Hr. split; [apply (mx_ref_ok _ _ _ X Hr)|].
    intros k c0. apply (semk_mext s s' H X k r c0 Hr).
  - intros h Hh c0. unfold sem_edge. rewrite (mx_kind _ _ X), (mo_kind s B), (mx_nlevels _ _ X).
    cbv beta iota zeta. apply (semk_mext s s' H X). apply (proj1 (wf_handles s H h Hh)).
Qed.

Theorem intact_m_elim : forall s s', intact_m s s' ->
  s_handles s' = s_handles s /\
  s_v2l s' = s_v2l s /\ s_l2v s' = s_l2v s /\
  (forall t c, term_val s t = Some c -> term_val s' t = Some c) /\
  (forall id nd, find_node s id = Some nd -> find_node s' id = Some nd) /\
  (forall r, ref_ok s r -> ref_ok s' r /\ forall k c0, semk s' k r c0 = semk s k r c0) /\
  (forall h, In h (s_handles s) -> forall c0, sem_edge s' (snd h) c0 = sem_edge s (snd h) c0) /\
  (forall id, find_node s id = None -> ~ reachable s' (handle_refs s') (RN id)) /\
  (forall r, reachable s' (handle_refs s') r <-> reachable s (handle_refs s) r).
Proof.
  intros s s' [[A [B1 B2] C0 F G] T D E0]. repeat (split; [assumption|]). assumption.
Qed.

(** extension without a new terminal: what [apply_ite] and [restrict] do *)
Definition mext0 (s s' : snap) : Prop := mext s s' /\ term_count s' = term_count s.

Lemma mext0_refl : forall s, mext0 s s.
Proof. intros s. split; [apply mext_refl | reflexivity]. Qed.

Lemma mext0_trans : forall s1 s2 s3, mext0 s1 s2 -> mext0 s2 s3 -> mext0 s1 s3.
Proof. intros s1 s2 s3 [A A'] [B B']. split; [eapply mext_trans; eauto | congruence]. Qed.

Section Safe.
Variable gt : ref -> ref -> bool.
Variable C : Type.
Variable cget : C -> N -> list ref -> option ref.
Variable cadd : C -> N -> list ref -> ref -> C.
Hypothesis Hlossy : lossy cget cadd.
Variable cap : nat.
Variable tcap : nat.

Definition MInv (s : snap) (c : C) : Prop := MtOK s /\ MCacheOK cget s c.
Definition Qref (s : snap) (r : ref) : Prop := ref_ok s r.

Notation RS := (res_safe MInv mext Qref).
Notation FS := (fail_safe MInv mext).
Notation RS0 := (res_safe MInv mext0 Qref).
Notation FS0 := (fail_safe MInv mext0).

(** what the C10 theorems say of an unbounded result, in the form of [safe_by_sim] *)
Lemma mresult_inv : forall s c res Phi, mresult_ok C cget s c res Phi ->
  exists s1 c1 r1, res = Some (s1, c1, r1) /\ MInv s1 c1 /\ mext s s1 /\ Qref s1 r1.
Proof.
  intros s c res Phi [s1 [c1 [r1 [E1 [B1 [X1 [O1 [D1 _]]]]]]]]. exists s1, c1, r1.
  split; [exact E1|]. split; [split; assumption|]. split; [exact X1 | apply (proj1 D1)].
Qed.

Lemma mresult_inv0 : forall s c res Phi, mresult_ok C cget s c res Phi ->
  (forall su cu ru, res = Some (su, cu, ru) -> term_count su = term_count s) ->
  exists s1 c1 r1, res = Some (s1, c1, r1) /\ MInv s1 c1 /\ mext0 s s1 /\ Qref s1 r1.
Proof.
  intros s c res Phi R T. destruct (mresult_inv s c res Phi R) as [s1 [c1 [r1 [E1 [I1 [X1 Q1]]]]]].
  exists s1, c1, r1. split; [exact E1|]. split; [exact I1|]. split; [|exact Q1].
  split; [exact X1 | apply (T s1 c1 r1 E1)].
Qed.

(** ** [mt_apply_bin_c] *)

Theorem mt_apply_bin_c_safe : forall op fuel s c f g,
  MtOK s -> MCacheOK cget s c -> ref_ok s f -> ref_ok s g ->
  nlevels s - Nat.min (rlevel s f) (rlevel s g) < fuel ->
  RS s (mt_apply_bin_c gt C cget cadd cap tcap fuel s c op f g).
Proof.
  intros op. induction fuel as [|n IH]; intros s c f g B O Hf Hg Hfuel; [lia|].
  destruct (denm_exists s f B Hf) as [phi Df]. destruct (denm_exists s g B Hg) as [psi Dg].
  apply (safe_by_sim C term_count cap tcap MInv mext ref Qref s _ _
           (mt_apply_bin_sim gt C cget cadd cap tcap (S n) s c op f g)
           (mresult_inv s c _ _ (mt_apply_bin_ok gt C cget cadd Hlossy op (S n) s c f g phi psi B O Df Dg Hfuel))).
  pose proof (mo_wf s B) as H.
  rewrite mt_apply_bin_c_S.
  destruct (mt_view_total s f Hf) as [vf Vf]. destruct (mt_view_total s g Hg) as [vg Vg].
  rewrite Vf, Vg.
  pose proof (mt_tb_rel gt cap tcap s op f g vf vg) as R.
  pose proof (mt_tb_sound gt s op f g vf vg phi psi B Df Dg Vf Vg) as T.
  destruct (mt_tb gt s op f g vf vg) as [s1 r1|o a b]; unfold tb_rel in R; simpl in T.
  - (* a finished result: an existing edge or [get_terminal(..)?] *)
    destruct R as [oc [-> L]]. destruct oc as [[s2 r2]|]; simpl; [exact I|].
    split; [split; assumption | apply mext_refl].
  - rewrite R. destruct T as [-> [Hin Hab]].
    destruct (cget c (mop_code op) [a; b]); [exact I|].
    destruct (omin_level s f g vf vg H Vf Vg Hin) as [El Hlvl]. rewrite El.
    set (lvl := Nat.min (rlevel s f) (rlevel s g)) in *.
    destruct (mt_cof_ok s f vf phi lvl B Df Vf ltac:(lia) Hlvl) as [ft [fe [Ecf [Dft [Dfe [Lft Lfe]]]]]].
    destruct (mt_cof_ok s g vg psi lvl B Dg Vg ltac:(lia) Hlvl) as [gt' [ge [Ecg [Dgt [Dge [Lgt Lge]]]]]].
    rewrite Ecf, Ecg. unfold mt_step_c.
    apply (gjoin2_safe C MInv mext mext_trans ref ref ref Qref Qref).
    + apply IH; auto; [apply (proj1 Dft) | apply (proj1 Dgt) | lia].
    + intros s1 c1 [B1 O1] X1.
      apply IH; auto; [apply (mx_ref_ok _ _ _ X1 (proj1 Dfe)) | apply (mx_ref_ok _ _ _ X1 (proj1 Dge))|].
      rewrite (mx_nlevels _ _ X1), (mx_rlevel _ _ _ X1 (proj1 Dfe)), (mx_rlevel _ _ _ X1 (proj1 Dge)). lia.
    + intros s2 c2 t e I2 X2. apply gfin_safe; [exact I2 | apply mext_refl].
Qed.

(** ** [mt_apply_ite_c] *)

Theorem mt_apply_ite_c_safe : forall fuel s c f g h,
  MtOK s -> MCacheOK cget s c -> ref_ok s f -> ref_ok s g -> ref_ok s h ->
  nlevels s - Nat.min (Nat.min (rlevel s f) (rlevel s g)) (rlevel s h) < fuel ->
  RS0 s (mt_apply_ite_c C cget cadd cap fuel s c f g h).
Proof.
  induction fuel as [|n IH]; intros s c f g h B O Hf Hg Hh Hfuel; [lia|].
  destruct (denm_exists s f B Hf) as [phi Df]. destruct (denm_exists s g B Hg) as [psi Dg].
  destruct (denm_exists s h B Hh) as [theta Dh].
  apply (safe_by_sim C term_count cap 0 MInv mext0 ref Qref s _ _
           (mt_apply_ite_sim C cget cadd cap 0 (S n) s c f g h)
           (mresult_inv0 s c _ _
              (mt_apply_ite_ok C cget cadd Hlossy (S n) s c f g h phi psi theta B O Df Dg Dh Hfuel)
              (mt_apply_ite_terms C cget cadd (S n) s c f g h))).
  pose proof (mo_wf s B) as H.
  rewrite mt_apply_ite_c_S.
  destruct (ref_eqb g h); [exact I|].
  destruct (mt_view_total s f Hf) as [vf Vf]. rewrite Vf.
  destruct vf as [fnode|tv]; [|exact I].
  destruct (mt_view_MI s f fnode Vf) as [idf [-> Ef]].
  destruct (cget c mcode_ite [RN idf; g; h]); [exact I|].
  destruct (mt_view_total s g Hg) as [vg Vg]. destruct (mt_view_total s h Hh) as [vh Vh].
  rewrite Vg, Vh.
  rewrite (omin3_level s idf fnode g h vg vh H Ef Vg Vh).
  rewrite (rlevel_node s idf fnode Ef) in Hfuel.
  pose proof (wf_level s H idf fnode Ef) as Hlf.
  pose proof (rlevel_le s H g) as Hlg. pose proof (rlevel_le s H h) as Hlh.
  set (lvl := Nat.min (Nat.min (nlevel fnode) (rlevel s g)) (rlevel s h)) in *.
  assert (Hlvl : lvl < nlevels s) by lia.
  destruct (cof2_okM s idf fnode phi lvl B Df Ef ltac:(lia)) as [ft [fe [Ecf [Dft [Dfe [Lft Lfe]]]]]].
  destruct (mt_cof_ok s g vg psi lvl B Dg Vg ltac:(lia) Hlvl) as [gt' [ge [Ecg [Dgt [Dge [Lgt Lge]]]]]].
  destruct (mt_cof_ok s h vh theta lvl B Dh Vh ltac:(lia) Hlvl) as [ht [he [Ech [Dht [Dhe [Lht Lhe]]]]]].
  rewrite Ecf, Ecg, Ech. unfold mt_step_c.
  apply (gjoin2_safe C MInv mext0 mext0_trans ref ref ref Qref Qref).
  - apply IH; auto; [apply (proj1 Dft) | apply (proj1 Dgt) | apply (proj1 Dht) | lia].
  - intros s1 c1 [B1 O1] [X1 _].
    apply IH; auto; [apply (mx_ref_ok _ _ _ X1 (proj1 Dfe)) | apply (mx_ref_ok _ _ _ X1 (proj1 Dge))
                    | apply (mx_ref_ok _ _ _ X1 (proj1 Dhe))|].
    rewrite (mx_nlevels _ _ X1), (mx_rlevel _ _ _ X1 (proj1 Dfe)),
            (mx_rlevel _ _ _ X1 (proj1 Dge)), (mx_rlevel _ _ _ X1 (proj1 Dhe)). lia.
  - intros s2 c2 t e I2 X2. apply gfin_safe; [exact I2 | apply mext0_refl].
Qed.

(** ** [mt_restrict_c] *)

Theorem mt_restrict_c_safe : forall fuel s c f vars lits,
  MtOK s -> MCacheOK cget s c -> ref_ok s f -> Cube s vars lits ->
  nlevels s - rlevel s f < fuel ->
  RS0 s (mt_restrict_c C cget cadd cap fuel s c f vars).
Proof.
  induction fuel as [|n IH]; intros s c f vars lits B O Hf Hcube Hfuel; [lia|].
  destruct (denm_exists s f B Hf) as [phi Df].
  apply (safe_by_sim C term_count cap 0 MInv mext0 ref Qref s _ _
           (mt_restrict_sim C cget cadd cap 0 (S n) s c f vars)
           (mresult_inv0 s c _ _
              (mt_restrict_ok C cget cadd Hlossy (S n) s c f vars phi lits B O Df Hcube Hfuel)
              (mt_restrict_terms C cget cadd (S n) s c f vars))).
  pose proof (mo_wf s B) as H.
  rewrite mt_restrict_c_S.
  destruct (mt_view_total s f Hf) as [vf Vf]. rewrite Vf.
  assert (Ovars : ref_ok s vars) by (inversion Hcube; subst; simpl; eauto).
  destruct (mt_view_total s vars Ovars) as [vv Vv]. rewrite Vv.
  destruct vf as [fnode|x]; [|destruct vv; exact I].
  destruct vv as [vnode|x]; [|exact I].
  destruct (mt_view_MI s f fnode Vf) as [idf [-> Ef]].
  destruct (mt_view_MI s vars vnode Vv) as [idv [-> Ev]].
  rewrite (wf_stored s H idf fnode Ef).
  pose proof (wf_level s H idf fnode Ef) as Hlf. pose proof (wf_level s H idv vnode Ev) as Hlv.
  destruct (mt_restrict_inner_ok (rin_fuel s) s idf fnode idv vnode phi lits B Ef Ev Df Hcube
              ltac:(unfold rin_fuel; lia)) as [res [Eres Pres]].
  rewrite Eres. destruct res as [r|vars' f' fnode']; simpl in Pres; [exact I|].
  destruct Pres as [id' [phi' [lits' [-> [E' [Df' [Hcube' [Lv' [Lf' Eq']]]]]]]]].
  rewrite (rlevel_node s idf fnode Ef) in Hfuel.
  destruct (cget c mcode_restrict [RN id'; vars']); [exact I|].
  destruct (mt_children s id' fnode' B E') as [a [b Ech]]. rewrite Ech.
  rewrite (wf_stored s H id' fnode' E').
  pose proof (wf_level s H id' fnode' E') as Hl'.
  assert (Ha : nth_error (nchildren fnode') 0 = Some a) by (rewrite Ech; reflexivity).
  assert (Hb : nth_error (nchildren fnode') 1 = Some b) by (rewrite Ech; reflexivity).
  destruct (child_nth s H id' fnode' 0 a E' Ha) as [Oa La].
  destruct (child_nth s H id' fnode' 1 b E' Hb) as [Ob Lb].
  unfold mt_step_c.
  apply (gjoin2_safe C MInv mext0 mext0_trans ref ref ref Qref Qref).
  - apply (IH s c (eref a) vars' lits'); auto. lia.
  - intros s1 c1 [B1 O1] [X1 _].
    apply (IH s1 c1 (eref b) vars' lits'); auto;
      [apply (mx_ref_ok _ _ _ X1 Ob) | apply (cube_mext s s1 _ _ X1 Hcube')|].
    rewrite (mx_nlevels _ _ X1), (mx_rlevel _ _ _ X1 Ob). lia.
  - intros s2 c2 t e I2 X2. apply gfin_safe; [exact I2 | apply mext0_refl].
Qed.

End Safe.

(** ** The C14 statements for MTBDDs: [apply_bin], [apply_ite], [restrict] *)

Section Top.
Variable gt : ref -> ref -> bool.
Variable C : Type.
Variable cget : C -> N -> list ref -> option ref.
Variable cadd : C -> N -> list ref -> ref -> C.
Hypothesis Hlossy : lossy cget cadd.

(** the state after a failure (two budgets): a well-formed MTBDD table with a
    correct cache that extends the table before, in which everything that
    existed is intact; no node and no terminal has disappeared; one of the two
    stores is full *)
Definition mfailed_ok (cap tcap : nat) (s s' : snap) (c' : C) : Prop :=
  MtOK s' /\ MCacheOK cget s' c' /\ mext s s' /\ intact_m s s' /\
  node_count s <= node_count s' /\ term_count s <= term_count s' /\
  (cap <= node_count s' \/ tcap <= term_count s').

Lemma mfailed_of_state : forall cap tcap s s' c', MtOK s ->
  failed_state C term_count cap tcap (MInv C cget) mext s s' c' -> mfailed_ok cap tcap s s' c'.
Proof.
  intros cap tcap s s' c' B [[B' O'] [X [G F]]]. simpl in G, F.
  split; [exact B'|]. split; [exact O'|]. split; [exact X|].
  split; [apply (mext_intact_m s s' B X)|]. split; [apply G|]. split; [apply G | exact F].
Qed.

(** the outcome of a bounded run, given the table [su] of the unbounded run:
    the unbounded result exactly when BOTH stores suffice *)
Definition mexact (cap tcap : nat) (s : snap) (rb : gres C ref) (su : snap) (cu : C) (ru : ref) : Prop :=
  (node_count su <= Nat.max cap (node_count s) /\ term_count su <= Nat.max tcap (term_count s) ->
     rb = GOk su cu ru) /\
  (Nat.max cap (node_count s) < node_count su \/ Nat.max tcap (term_count s) < term_count su ->
     exists s' c', rb = GOom s' c' /\ mfailed_ok cap tcap s s' c').

Lemma mexact_intro : forall cap tcap s rb su cu ru, MtOK s ->
  res_safe (MInv C cget) mext Qref s rb -> sim C term_count cap tcap s rb (Some (su, cu, ru)) ->
  mexact cap tcap s rb su cu ru.
Proof.
  intros cap tcap s rb su cu ru B S M.
  destruct (exact_upper C term_count cap tcap (MInv C cget) mext ref Qref s rb su cu ru S M) as [A1 A2].
  split; [exact A1|].
  intros Hbig. destruct (A2 Hbig) as [s' [c' [E Fs]]].
  exists s', c'. split; [exact E | apply (mfailed_of_state cap tcap s s' c' B Fs)].
Qed.

(** failing or not is decided by the table of the unbounded run *)
Lemma mexact_code : forall cap tcap s rb rb' su cu ru,
  mexact cap tcap s rb su cu ru -> mexact cap tcap s rb' su cu ru -> gres_code rb = gres_code rb'.
Proof.
  intros cap tcap s rb rb' su cu ru [A1 B1] [A2 B2].
  destruct (le_lt_dec (node_count su) (Nat.max cap (node_count s))) as [Hn|Hn].
  - destruct (le_lt_dec (term_count su) (Nat.max tcap (term_count s))) as [Ht|Ht].
    + rewrite (A1 (conj Hn Ht)), (A2 (conj Hn Ht)). reflexivity.
    + destruct (B1 (or_intror Ht)) as [s1 [c1 [-> _]]]. destruct (B2 (or_intror Ht)) as [s2 [c2 [-> _]]].
      reflexivity.
  - destruct (B1 (or_introl Hn)) as [s1 [c1 [-> _]]]. destruct (B2 (or_introl Hn)) as [s2 [c2 [-> _]]].
    reflexivity.
Qed.

(** the same for the operations that never create a terminal ([apply_ite],
    [restrict]): one budget, the terminal store is untouched *)
Definition mfailed_n (cap : nat) (s s' : snap) (c' : C) : Prop :=
  MtOK s' /\ MCacheOK cget s' c' /\ mext s s' /\ intact_m s s' /\
  node_count s <= node_count s' /\ cap <= node_count s' /\ term_count s' = term_count s.

Definition mexact_n (cap : nat) (s : snap) (rb : gres C ref) (su : snap) (cu : C) (ru : ref) : Prop :=
  (node_count su <= Nat.max cap (node_count s) -> rb = GOk su cu ru) /\
  (Nat.max cap (node_count s) < node_count su -> exists s' c', rb = GOom s' c' /\ mfailed_n cap s s' c').

(** a one-budget failure is a two-budget failure for every terminal capacity *)
Lemma mfailed_n_ok : forall cap tcap s s' c', mfailed_n cap s s' c' -> mfailed_ok cap tcap s s' c'.
Proof.
  intros cap tcap s s' c' [B [O [X [I [G [F T]]]]]]. unfold mfailed_ok.
  split; [exact B|]. split; [exact O|]. split; [exact X|]. split; [exact I|].
  split; [exact G|]. split; [lia | left; exact F].
Qed.

Lemma mfailed_n_intro : forall cap s (rb : gres C ref) s' c' ru, MtOK s ->
  res_safe (MInv C cget) mext0 Qref s rb -> rb = GOom s' c' ->
  (forall tcap, sim C term_count cap tcap s rb ru) -> mfailed_n cap s s' c'.
Proof.
  intros cap s rb s' c' ru B S E M. subst rb. destruct S as [[B' O'] [X T]].
  destruct (M (S (term_count s'))) as [[G F] _]. simpl in G, F.
  split; [exact B'|]. split; [exact O'|]. split; [exact X|].
  split; [apply (mext_intact_m s s' B X)|]. split; [lia|]. split; [lia | exact T].
Qed.

Lemma mexact_n_intro : forall cap s rb su cu ru, MtOK s ->
  res_safe (MInv C cget) mext0 Qref s rb ->
  (forall tcap, sim C term_count cap tcap s rb (Some (su, cu, ru))) ->
  term_count su = term_count s ->
  mexact_n cap s rb su cu ru.
Proof.
  intros cap s rb su cu ru B S M T. split.
  - intros Hfit. destruct (M 0) as [_ [G F]]. simpl in G. apply F. simpl. lia.
  - intros Hbig. destruct rb as [s' c' r|s' c'|] eqn:Erb; [| |contradiction].
    + exfalso. destruct (M 0) as [[Eu W] _]. inversion Eu; subst. simpl in W. lia.
    + exists s', c'. split; [reflexivity|].
      apply (mfailed_n_intro cap s (GOom s' c') s' c' (Some (su, cu, ru)) B S eq_refl M).
Qed.

(** *** never a wrong reference: a result is literally the result of the unbounded run *)

Theorem moom_never_wrong_bin : forall cap tcap op fuel s c f g s' c' r,
  mt_apply_bin_c gt C cget cadd cap tcap fuel s c op f g = GOk s' c' r ->
  mt_apply_bin gt C cget cadd fuel s c op f g = Some (s', c', r).
Proof.
  intros cap tcap op fuel s c f g s' c' r E.
  apply (sim_never_wrong C term_count cap tcap ref _ _ _ _ _ _
           (mt_apply_bin_sim gt C cget cadd cap tcap fuel s c op f g) E).
Qed.

Theorem moom_never_wrong_ite : forall cap fuel s c f g h s' c' r,
  mt_apply_ite_c C cget cadd cap fuel s c f g h = GOk s' c' r ->
  mt_apply_ite C cget cadd fuel s c f g h = Some (s', c', r).
Proof.
  intros cap fuel s c f g h s' c' r E.
  apply (sim_never_wrong C term_count cap 0 ref _ _ _ _ _ _
           (mt_apply_ite_sim C cget cadd cap 0 fuel s c f g h) E).
Qed.

Theorem moom_never_wrong_restrict : forall cap fuel s c f vars s' c' r,
  mt_restrict_c C cget cadd cap fuel s c f vars = GOk s' c' r ->
  mt_restrict C cget cadd fuel s c f vars = Some (s', c', r).
Proof.
  intros cap fuel s c f vars s' c' r E.
  apply (sim_never_wrong C term_count cap 0 ref _ _ _ _ _ _
           (mt_restrict_sim C cget cadd cap 0 fuel s c f vars) E).
Qed.

(** ... hence the pointwise operation of the operands (C10), in a table in
    which everything that existed before is intact *)

Theorem moom_never_wrong_bin_sem : forall cap tcap op fuel s c f g s' c' r,
  MtOK s -> MCacheOK cget s c -> ref_ok s f -> ref_ok s g -> FUEL s <= fuel ->
  mt_apply_bin_c gt C cget cadd cap tcap fuel s c op f g = GOk s' c' r ->
  MtOK s' /\ MCacheOK cget s' c' /\ mext s s' /\ intact_m s s' /\ ref_ok s' r /\
  forall c0, bchoice c0 -> exists x y,
    mvalue s f c0 x /\ mvalue s g c0 y /\ mvalue s' r c0 (mop_eval op x y).
Proof.
  intros cap tcap op fuel s c f g s' c' r B O Hf Hg Hfuel E.
  apply moom_never_wrong_bin in E.
  destruct (mt_apply_bin_sound gt C cget cadd Hlossy op fuel s c f g B O Hf Hg Hfuel)
    as [s1 [c1 [r1 [E1 [B1 [X1 [O1 [R1 V1]]]]]]]].
  rewrite E in E1. inversion E1; subst s1 c1 r1.
  split; [exact B1|]. split; [exact O1|]. split; [exact X1|].
  split; [apply (mext_intact_m s s' B X1)|]. auto.
Qed.

Theorem moom_never_wrong_ite_sem : forall cap fuel s c f g h s' c' r,
  MtOK s -> MCacheOK cget s c -> ref_ok s f -> ref_ok s g -> ref_ok s h -> FUEL s <= fuel ->
  mt_apply_ite_c C cget cadd cap fuel s c f g h = GOk s' c' r ->
  MtOK s' /\ MCacheOK cget s' c' /\ mext s s' /\ intact_m s s' /\ term_count s' = term_count s /\
  ref_ok s' r /\
  forall c0, bchoice c0 -> exists x y z,
    mvalue s f c0 x /\ mvalue s g c0 y /\ mvalue s h c0 z /\
    mvalue s' r c0 (if i64_is_zero x then z else y).
Proof.
  intros cap fuel s c f g h s' c' r B O Hf Hg Hh Hfuel E.
  apply moom_never_wrong_ite in E.
  destruct (mt_apply_ite_sound C cget cadd Hlossy fuel s c f g h B O Hf Hg Hh Hfuel)
    as [s1 [c1 [r1 [E1 [B1 [X1 [O1 [R1 V1]]]]]]]].
  rewrite E in E1. inversion E1; subst s1 c1 r1.
  split; [exact B1|]. split; [exact O1|]. split; [exact X1|].
  split; [apply (mext_intact_m s s' B X1)|].
  split; [apply (mt_apply_ite_terms C cget cadd fuel s c f g h _ _ _ E)|]. auto.
Qed.

Theorem moom_never_wrong_restrict_sem : forall cap fuel s c f vars lits s' c' r,
  MtOK s -> MCacheOK cget s c -> ref_ok s f -> Cube s vars lits -> FUEL s <= fuel ->
  mt_restrict_c C cget cadd cap fuel s c f vars = GOk s' c' r ->
  MtOK s' /\ MCacheOK cget s' c' /\ mext s s' /\ intact_m s s' /\ term_count s' = term_count s /\
  ref_ok s' r /\
  forall c0, bchoice c0 -> exists x, mvalue s f (ovr lits c0) x /\ mvalue s' r c0 x.
Proof.
  intros cap fuel s c f vars lits s' c' r B O Hf Hcube Hfuel E.
  apply moom_never_wrong_restrict in E.
  destruct (mt_restrict_sound C cget cadd Hlossy fuel s c f vars lits B O Hf Hcube Hfuel)
    as [s1 [c1 [r1 [E1 [B1 [X1 [O1 [R1 V1]]]]]]]].
  rewrite E in E1. inversion E1; subst s1 c1 r1.
  split; [exact B1|]. split; [exact O1|]. split; [exact X1|].
  split; [apply (mext_intact_m s s' B X1)|].
  split; [apply (mt_restrict_terms C cget cadd fuel s c f vars _ _ _ E)|]. auto.
Qed.

(** *** the safe-run facts in the form the statements below use *)

Lemma mbin_rs : forall cap tcap op fuel s c f g,
  MtOK s -> MCacheOK cget s c -> ref_ok s f -> ref_ok s g -> FUEL s <= fuel ->
  res_safe (MInv C cget) mext Qref s (mt_apply_bin_c gt C cget cadd cap tcap fuel s c op f g).
Proof.
  intros cap tcap op fuel s c f g B O Hf Hg Hfuel. unfold FUEL in Hfuel.
  apply (mt_apply_bin_c_safe gt C cget cadd Hlossy); auto. lia.
Qed.

Lemma mite_rs : forall cap fuel s c f g h,
  MtOK s -> MCacheOK cget s c -> ref_ok s f -> ref_ok s g -> ref_ok s h -> FUEL s <= fuel ->
  res_safe (MInv C cget) mext0 Qref s (mt_apply_ite_c C cget cadd cap fuel s c f g h).
Proof.
  intros cap fuel s c f g h B O Hf Hg Hh Hfuel. unfold FUEL in Hfuel.
  apply (mt_apply_ite_c_safe C cget cadd Hlossy); auto. lia.
Qed.

Lemma mrestrict_rs : forall cap fuel s c f vars lits,
  MtOK s -> MCacheOK cget s c -> ref_ok s f -> Cube s vars lits -> FUEL s <= fuel ->
  res_safe (MInv C cget) mext0 Qref s (mt_restrict_c C cget cadd cap fuel s c f vars).
Proof.
  intros cap fuel s c f vars lits B O Hf Hcube Hfuel. unfold FUEL in Hfuel.
  apply (mt_restrict_c_safe C cget cadd Hlossy cap fuel s c f vars lits); auto. lia.
Qed.

(** *** the state after a failure *)

Theorem moom_safe_bin : forall cap tcap op fuel s c f g s' c',
  MtOK s -> MCacheOK cget s c -> ref_ok s f -> ref_ok s g -> FUEL s <= fuel ->
  mt_apply_bin_c gt C cget cadd cap tcap fuel s c op f g = GOom s' c' ->
  mfailed_ok cap tcap s s' c'.
Proof.
  intros cap tcap op fuel s c f g s' c' B O Hf Hg Hfuel E.
  pose proof (mbin_rs cap tcap op fuel s c f g B O Hf Hg Hfuel) as S.
  pose proof (mt_apply_bin_sim gt C cget cadd cap tcap fuel s c op f g) as M.
  rewrite E in S, M. apply (mfailed_of_state cap tcap s s' c' B).
  apply (failed_intro C term_count cap tcap (MInv C cget) mext ref Qref s s' c' _ S M).
Qed.

Theorem moom_safe_ite : forall cap fuel s c f g h s' c',
  MtOK s -> MCacheOK cget s c -> ref_ok s f -> ref_ok s g -> ref_ok s h -> FUEL s <= fuel ->
  mt_apply_ite_c C cget cadd cap fuel s c f g h = GOom s' c' ->
  mfailed_n cap s s' c'.
Proof.
  intros cap fuel s c f g h s' c' B O Hf Hg Hh Hfuel E.
  apply (mfailed_n_intro cap s _ s' c' (mt_apply_ite C cget cadd fuel s c f g h) B
           (mite_rs cap fuel s c f g h B O Hf Hg Hh Hfuel) E).
  intros tcap. apply mt_apply_ite_sim.
Qed.

Theorem moom_safe_restrict : forall cap fuel s c f vars lits s' c',
  MtOK s -> MCacheOK cget s c -> ref_ok s f -> Cube s vars lits -> FUEL s <= fuel ->
  mt_restrict_c C cget cadd cap fuel s c f vars = GOom s' c' ->
  mfailed_n cap s s' c'.
Proof.
  intros cap fuel s c f vars lits s' c' B O Hf Hcube Hfuel E.
  apply (mfailed_n_intro cap s _ s' c' (mt_restrict C cget cadd fuel s c f vars) B
           (mrestrict_rs cap fuel s c f vars lits B O Hf Hcube Hfuel) E).
  intros tcap. apply mt_restrict_sim.
Qed.

(** *** no panic, no divergence *)

Theorem moom_no_panic_bin : forall cap tcap op fuel s c f g,
  MtOK s -> MCacheOK cget s c -> ref_ok s f -> ref_ok s g -> FUEL s <= fuel ->
  mt_apply_bin_c gt C cget cadd cap tcap fuel s c op f g <> GStuck.
Proof.
  intros. eapply res_safe_not_stuck. apply mbin_rs; eassumption.
Qed.

Theorem moom_no_panic_ite : forall cap fuel s c f g h,
  MtOK s -> MCacheOK cget s c -> ref_ok s f -> ref_ok s g -> ref_ok s h -> FUEL s <= fuel ->
  mt_apply_ite_c C cget cadd cap fuel s c f g h <> GStuck.
Proof.
  intros. eapply res_safe_not_stuck. apply mite_rs; eassumption.
Qed.

Theorem moom_no_panic_restrict : forall cap fuel s c f vars lits,
  MtOK s -> MCacheOK cget s c -> ref_ok s f -> Cube s vars lits -> FUEL s <= fuel ->
  mt_restrict_c C cget cadd cap fuel s c f vars <> GStuck.
Proof.
  intros. eapply res_safe_not_stuck. eapply mrestrict_rs; eassumption.
Qed.

(** *** retry: when the table of the unbounded run fits, the bounded run
    succeeds with exactly that result *)

Theorem moom_retry_bin : forall cap tcap op fuel s c f g su cu ru,
  mt_apply_bin gt C cget cadd fuel s c op f g = Some (su, cu, ru) ->
  node_count su <= cap -> term_count su <= tcap ->
  mt_apply_bin_c gt C cget cadd cap tcap fuel s c op f g = GOk su cu ru.
Proof.
  intros cap tcap op fuel s c f g su cu ru E.
  apply (sim_retry_le C term_count cap tcap ref s). rewrite <- E. apply mt_apply_bin_sim.
Qed.

Theorem moom_retry_ite : forall cap fuel s c f g h su cu ru,
  mt_apply_ite C cget cadd fuel s c f g h = Some (su, cu, ru) -> node_count su <= cap ->
  mt_apply_ite_c C cget cadd cap fuel s c f g h = GOk su cu ru.
Proof.
  intros cap fuel s c f g h su cu ru E Hn.
  apply (sim_retry_le C term_count cap (term_count su) ref s); [|exact Hn | apply le_n].
  rewrite <- E. apply mt_apply_ite_sim.
Qed.

Theorem moom_retry_restrict : forall cap fuel s c f vars su cu ru,
  mt_restrict C cget cadd fuel s c f vars = Some (su, cu, ru) -> node_count su <= cap ->
  mt_restrict_c C cget cadd cap fuel s c f vars = GOk su cu ru.
Proof.
  intros cap fuel s c f vars su cu ru E Hn.
  apply (sim_retry_le C term_count cap (term_count su) ref s); [|exact Hn | apply le_n].
  rewrite <- E. apply mt_restrict_sim.
Qed.

(** *** monotone in both capacities *)

Theorem moom_monotone_bin : forall cap cap' tcap tcap' op fuel s c f g s' c' r,
  cap <= cap' -> tcap <= tcap' ->
  mt_apply_bin_c gt C cget cadd cap tcap fuel s c op f g = GOk s' c' r ->
  mt_apply_bin_c gt C cget cadd cap' tcap' fuel s c op f g = GOk s' c' r.
Proof.
  intros cap cap' tcap tcap' op fuel s c f g s' c' r Hc Ht E.
  apply (sim_monotone C ref term_count cap tcap cap' tcap' s _ _ _ s' c' r Hc Ht
           (mt_apply_bin_sim gt C cget cadd cap tcap fuel s c op f g)
           (mt_apply_bin_sim gt C cget cadd cap' tcap' fuel s c op f g) E).
Qed.

Theorem moom_monotone_ite : forall cap cap' fuel s c f g h s' c' r, cap <= cap' ->
  mt_apply_ite_c C cget cadd cap fuel s c f g h = GOk s' c' r ->
  mt_apply_ite_c C cget cadd cap' fuel s c f g h = GOk s' c' r.
Proof.
  intros cap cap' fuel s c f g h s' c' r Hc E.
  apply (sim_monotone C ref term_count cap 0 cap' 0 s _ _ _ s' c' r Hc (le_n 0)
           (mt_apply_ite_sim C cget cadd cap 0 fuel s c f g h)
           (mt_apply_ite_sim C cget cadd cap' 0 fuel s c f g h) E).
Qed.

Theorem moom_monotone_restrict : forall cap cap' fuel s c f vars s' c' r, cap <= cap' ->
  mt_restrict_c C cget cadd cap fuel s c f vars = GOk s' c' r ->
  mt_restrict_c C cget cadd cap' fuel s c f vars = GOk s' c' r.
Proof.
  intros cap cap' fuel s c f vars s' c' r Hc E.
  apply (sim_monotone C ref term_count cap 0 cap' 0 s _ _ _ s' c' r Hc (le_n 0)
           (mt_restrict_sim C cget cadd cap 0 fuel s c f vars)
           (mt_restrict_sim C cget cadd cap' 0 fuel s c f vars) E).
Qed.

(** *** exactness *)

Theorem moom_exact_bin : forall cap tcap op fuel s c f g,
  MtOK s -> MCacheOK cget s c -> ref_ok s f -> ref_ok s g -> FUEL s <= fuel ->
  exists su cu ru, mt_apply_bin gt C cget cadd fuel s c op f g = Some (su, cu, ru) /\
    (forall c0, bchoice c0 -> exists x y,
       mvalue s f c0 x /\ mvalue s g c0 y /\ mvalue su ru c0 (mop_eval op x y)) /\
    mexact cap tcap s (mt_apply_bin_c gt C cget cadd cap tcap fuel s c op f g) su cu ru.
Proof.
  intros cap tcap op fuel s c f g B O Hf Hg Hfuel.
  destruct (mt_apply_bin_sound gt C cget cadd Hlossy op fuel s c f g B O Hf Hg Hfuel)
    as [su [cu [ru [Eu [_ [_ [_ [_ V]]]]]]]].
  exists su, cu, ru. split; [exact Eu|]. split; [exact V|].
  apply mexact_intro; [exact B | apply mbin_rs; auto |]. rewrite <- Eu. apply mt_apply_bin_sim.
Qed.

Theorem moom_exact_ite : forall cap fuel s c f g h,
  MtOK s -> MCacheOK cget s c -> ref_ok s f -> ref_ok s g -> ref_ok s h -> FUEL s <= fuel ->
  exists su cu ru, mt_apply_ite C cget cadd fuel s c f g h = Some (su, cu, ru) /\
    term_count su = term_count s /\
    (forall c0, bchoice c0 -> exists x y z,
       mvalue s f c0 x /\ mvalue s g c0 y /\ mvalue s h c0 z /\
       mvalue su ru c0 (if i64_is_zero x then z else y)) /\
    mexact_n cap s (mt_apply_ite_c C cget cadd cap fuel s c f g h) su cu ru.
Proof.
  intros cap fuel s c f g h B O Hf Hg Hh Hfuel.
  destruct (mt_apply_ite_sound C cget cadd Hlossy fuel s c f g h B O Hf Hg Hh Hfuel)
    as [su [cu [ru [Eu [_ [_ [_ [_ V]]]]]]]].
  pose proof (mt_apply_ite_terms C cget cadd fuel s c f g h _ _ _ Eu) as T.
  exists su, cu, ru. split; [exact Eu|]. split; [exact T|]. split; [exact V|].
  apply mexact_n_intro; [exact B | apply mite_rs; auto | | exact T].
  intros tcap. rewrite <- Eu. apply mt_apply_ite_sim.
Qed.

Theorem moom_exact_restrict : forall cap fuel s c f vars lits,
  MtOK s -> MCacheOK cget s c -> ref_ok s f -> Cube s vars lits -> FUEL s <= fuel ->
  exists su cu ru, mt_restrict C cget cadd fuel s c f vars = Some (su, cu, ru) /\
    term_count su = term_count s /\
    (forall c0, bchoice c0 -> exists x, mvalue s f (ovr lits c0) x /\ mvalue su ru c0 x) /\
    mexact_n cap s (mt_restrict_c C cget cadd cap fuel s c f vars) su cu ru.
Proof.
  intros cap fuel s c f vars lits B O Hf Hcube Hfuel.
  destruct (mt_restrict_sound C cget cadd Hlossy fuel s c f vars lits B O Hf Hcube Hfuel)
    as [su [cu [ru [Eu [_ [_ [_ [_ V]]]]]]]].
  pose proof (mt_restrict_terms C cget cadd fuel s c f vars _ _ _ Eu) as T.
  exists su, cu, ru. split; [exact Eu|]. split; [exact T|]. split; [exact V|].
  apply mexact_n_intro; [exact B | apply (mrestrict_rs cap fuel s c f vars lits); auto | | exact T].
  intros tcap. rewrite <- Eu. apply mt_restrict_sim.
Qed.

End Top.

(** ** Constants: one terminal.  On failure no table is returned: the manager
    is untouched. *)

(** "the value is new" in terms of the table's terminals *)
Lemma value_new_iff : forall s v, WF s ->
  (rassoc_N (s_terms s) (code v) = None <-> forall t, term_val s t <> Some (code v)).
Proof.
  intros s v H. split.
  - intros E t Et. apply (rassoc_N_none _ _ E). apply assoc_N_In in Et.
    apply (in_map snd) in Et. exact Et.
  - intros Hn. destruct (rassoc_N (s_terms s) (code v)) as [t|] eqn:E; [|reflexivity].
    exfalso. apply (Hn t). apply rassoc_N_In in E.
    apply In_assoc_N; [apply (wf_term_ids s H) | exact E].
Qed.

Theorem moom_const_never_wrong : forall tcap s v s' r,
  mt_const_cap tcap s v = Some (s', r) -> mt_const s v = (s', r).
Proof.
  intros tcap s v s' r E. destruct (get_terminal_cap_some tcap s v (s', r) E) as [Ex _].
  symmetry. exact Ex.
Qed.

(** [Err(OutOfMemory)] iff no terminal carries the value and all [tcap] slots are in use *)
Theorem moom_const_oom_iff : forall tcap s v, WF s ->
  (mt_const_cap tcap s v = None <->
   (forall t, term_val s t <> Some (code v)) /\ tcap <= term_count s).
Proof.
  intros tcap s v H. unfold mt_const_cap. rewrite get_terminal_cap_oom_iff, (value_new_iff s v H).
  reflexivity.
Qed.

Theorem moom_const_exact : forall tcap s v, MtOK s -> wf v ->
  exists s' r, mt_const s v = (s', r) /\ MtOK s' /\ mext s s' /\ intact_m s s' /\ ref_ok s' r /\
    (forall a, mfun_of s' r a = v) /\
    node_count s' = node_count s /\ term_count s <= term_count s' /\
    (term_count s' <= Nat.max tcap (term_count s) -> mt_const_cap tcap s v = Some (s', r)) /\
    (Nat.max tcap (term_count s) < term_count s' ->
       mt_const_cap tcap s v = None /\ tcap <= term_count s).
Proof.
  intros tcap s v B Hv. destruct (mt_const s v) as [s' r] eqn:Ec.
  destruct (mt_const_mfun s v s' r B Hv Ec) as [B' [X [R V]]].
  destruct (get_terminal_counts s v s' r Ec) as [Hn Ht].
  exists s', r. split; [reflexivity|]. split; [exact B'|]. split; [exact X|].
  split; [apply (mext_intact_m s s' B X)|]. split; [exact R|]. split; [exact V|].
  split; [exact Hn|]. split; [lia|].
  pose proof (mt_const_cap_leaf 0 tcap s v) as [G L]. rewrite Ec in G, L. simpl in G, L. split.
  - intros Hfit. destruct (mt_const_cap tcap s v) as [x|]; [destruct L as [-> _]; reflexivity|].
    exfalso. destruct L as [_ N]. apply N. lia.
  - intros Hbig. destruct (mt_const_cap tcap s v) as [x|]; [exfalso; destruct L as [_ W]; lia|].
    split; [reflexivity|]. destruct L as [[F|F] _]; lia.
Qed.

Theorem moom_const_retry : forall tcap s v s' r,
  mt_const s v = (s', r) -> term_count s' <= tcap -> mt_const_cap tcap s v = Some (s', r).
Proof.
  intros tcap s v s' r Ec Hfit. destruct (get_terminal_counts s v s' r Ec) as [Hn Ht].
  pose proof (mt_const_cap_leaf 0 tcap s v) as [G L]. rewrite Ec in G, L. simpl in G, L.
  destruct (mt_const_cap tcap s v) as [x|]; [destruct L as [-> _]; reflexivity|].
  exfalso. destruct L as [_ N]. apply N. lia.
Qed.

Theorem moom_const_monotone : forall tcap tcap' s v x, tcap <= tcap' ->
  mt_const_cap tcap s v = Some x -> mt_const_cap tcap' s v = Some x.
Proof.
  intros tcap tcap' s v x Hle. unfold mt_const_cap, get_terminal_cap.
  destruct (rassoc_N (s_terms s) (code v)); [auto|].
  destruct (Nat.ltb_spec (term_count s) tcap); [|discriminate].
  destruct (Nat.ltb_spec (term_count s) tcap'); [auto | lia].
Qed.

(** ** Variables: two terminals and one node.  A failure of a later step leaves
    what the earlier steps created (garbage until a collection). *)

Notation VInv := (MInv unit nc_get).

Lemma vinv_intro : forall s c, MtOK s -> VInv s c.
Proof. intros s c B. split; [exact B | apply mnc_ok]. Qed.

(** [get_terminal(v)?] as a step of [var_edge] *)
Lemma gterm_rs : forall tcap s v, MtOK s -> wf v ->
  res_safe VInv mext (fun (_ : snap) (_ : ref) => True) s
    (gfin s tt (get_terminal_cap tcap s v) (fun _ => tt) (fun t => t)).
Proof.
  intros tcap s v B Hv. destruct (get_terminal_cap tcap s v) as [[s1 t]|] eqn:E; simpl.
  - destruct (get_terminal_cap_some tcap s v _ E) as [Ex _]. symmetry in Ex.
    destruct (get_terminal_ok s v s1 t B Hv Ex) as [B1 [X1 _]].
    split; [apply vinv_intro; exact B1|]. split; [exact X1 | exact I].
  - split; [apply vinv_intro; exact B | apply mext_refl].
Qed.

Lemma mvar_steps_rs : forall cap tcap s v lvl, MtOK s -> v < nlevels s ->
  nth_error (s_v2l s) v = Some lvl ->
  res_safe VInv mext Qref s (mt_var_steps cap tcap s lvl).
Proof.
  intros cap tcap s v lvl B Hv El. apply safe_intro.
  - unfold mt_var_steps.
    apply (gbind_safe unit VInv mext mext_trans ref ref (fun _ _ => True)).
    { apply gterm_rs; [exact B | apply wf_one]. }
    intros s1 c1 t [B1 _] X1 _.
    apply (gbind_safe unit VInv mext mext_trans ref ref (fun _ _ => True)).
    { apply gterm_rs; [exact B1 | apply wf_zero]. }
    intros s2 c2 e [B2 _] X2 _.
    apply gfin_safe; [apply vinv_intro; exact B2 | apply mext_refl].
  - intros s' c' r E.
    pose proof (sim_never_wrong unit term_count cap tcap ref _ _ _ _ _ _
                  (mt_var_steps_sim cap tcap s lvl) E) as Eu.
    destruct (mt_var_ok s v B Hv) as [lvl0 [s0 [r0 [El0 [Em [B0 [X0 D0]]]]]]].
    rewrite mt_var_U, El, Eu in Em. inversion Em; subst s0 r0.
    split; [apply vinv_intro; exact B0|]. split; [exact X0 | apply (proj1 D0)].
Qed.

Theorem moom_never_wrong_var : forall cap tcap s v s' c' r,
  mt_var_cap cap tcap s v = Some (GOk s' c' r) -> mt_var s v = Some (s', r).
Proof.
  intros cap tcap s v s' c' r E. unfold mt_var_cap in E. rewrite mt_var_U.
  destruct (nth_error (s_v2l s) v) as [lvl|]; [|discriminate].
  assert (E' : mt_var_steps cap tcap s lvl = GOk s' c' r) by congruence.
  rewrite (sim_never_wrong unit term_count cap tcap ref _ _ _ _ _ _ (mt_var_steps_sim cap tcap s lvl) E').
  reflexivity.
Qed.

(** the model panics exactly when the unbounded one does: no such variable *)
Theorem moom_var_panic_iff : forall cap tcap s v,
  mt_var_cap cap tcap s v = None <-> mt_var s v = None.
Proof.
  intros cap tcap s v. unfold mt_var_cap. rewrite mt_var_U.
  destruct (nth_error (s_v2l s) v) as [lvl|]; [|tauto].
  destruct (mt_var_steps_u_some s lvl) as [s' [r ->]]. split; discriminate.
Qed.

Theorem moom_no_panic_var : forall cap tcap s v, MtOK s -> v < nlevels s ->
  exists rb, mt_var_cap cap tcap s v = Some rb /\ rb <> GStuck.
Proof.
  intros cap tcap s v B Hv.
  destruct (mt_var_ok s v B Hv) as [lvl [s0 [r0 [El _]]]].
  unfold mt_var_cap. rewrite El. eexists. split; [reflexivity|].
  intros E. pose proof (mvar_steps_rs cap tcap s v lvl B Hv El) as S. rewrite E in S. exact S.
Qed.

Theorem moom_safe_var : forall cap tcap s v s' c', MtOK s -> v < nlevels s ->
  mt_var_cap cap tcap s v = Some (GOom s' c') ->
  mfailed_ok unit nc_get cap tcap s s' c'.
Proof.
  intros cap tcap s v s' c' B Hv E.
  destruct (mt_var_ok s v B Hv) as [lvl [s0 [r0 [El _]]]].
  unfold mt_var_cap in E. rewrite El in E.
  assert (E' : mt_var_steps cap tcap s lvl = GOom s' c') by congruence.
  pose proof (mvar_steps_rs cap tcap s v lvl B Hv El) as S.
  pose proof (mt_var_steps_sim cap tcap s lvl) as M.
  rewrite E' in S, M. apply (mfailed_of_state unit nc_get cap tcap s s' c' B).
  apply (failed_intro unit term_count cap tcap VInv mext ref Qref s s' c' _ S M).
Qed.

Theorem moom_exact_var : forall cap tcap s v, MtOK s -> v < nlevels s ->
  exists s' r, mt_var s v = Some (s', r) /\ MtOK s' /\ mext s s' /\ intact_m s s' /\ ref_ok s' r /\
    (forall a, mfun_of s' r a = if a v then i64_one else i64_zero) /\
    exists rb, mt_var_cap cap tcap s v = Some rb /\ mexact unit nc_get cap tcap s rb s' tt r.
Proof.
  intros cap tcap s v B Hv.
  destruct (mt_var_mfun s v B Hv) as [s' [r [Em [B' [X [R V]]]]]].
  destruct (mt_var_ok s v B Hv) as [lvl [s0 [r0 [El _]]]].
  exists s', r. split; [exact Em|]. split; [exact B'|]. split; [exact X|].
  split; [apply (mext_intact_m s s' B X)|]. split; [exact R|]. split; [exact V|].
  unfold mt_var_cap. rewrite El. eexists. split; [reflexivity|].
  apply mexact_intro; [exact B | apply (mvar_steps_rs cap tcap s v lvl B Hv El)|].
  pose proof (mt_var_steps_sim cap tcap s lvl) as M.
  rewrite mt_var_U, El in Em.
  destruct (mt_var_steps_u s lvl) as [[[s1 c1] r1]|]; [|discriminate].
  inversion Em; subst s1 r1. destruct c1. exact M.
Qed.

Theorem moom_retry_var : forall cap tcap s v su ru,
  mt_var s v = Some (su, ru) -> node_count su <= cap -> term_count su <= tcap ->
  mt_var_cap cap tcap s v = Some (GOk su tt ru).
Proof.
  intros cap tcap s v su ru Em Hn Ht. unfold mt_var_cap. rewrite mt_var_U in Em.
  destruct (nth_error (s_v2l s) v) as [lvl|]; [|discriminate].
  pose proof (mt_var_steps_sim cap tcap s lvl) as M.
  destruct (mt_var_steps_u s lvl) as [[[s1 c1] r1]|]; [|discriminate].
  inversion Em; subst s1 r1. destruct c1.
  destruct M as [_ [G F]]. simpl in G. rewrite F by (simpl; lia). reflexivity.
Qed.

Theorem moom_monotone_var : forall cap cap' tcap tcap' s v s' c' r, cap <= cap' -> tcap <= tcap' ->
  mt_var_cap cap tcap s v = Some (GOk s' c' r) -> mt_var_cap cap' tcap' s v = Some (GOk s' c' r).
Proof.
  intros cap cap' tcap tcap' s v s' c' r Hc Ht E. unfold mt_var_cap in *.
  destruct (nth_error (s_v2l s) v) as [lvl|]; [|discriminate].
  assert (E' : mt_var_steps cap tcap s lvl = GOk s' c' r) by congruence.
  rewrite (sim_monotone unit ref term_count cap tcap cap' tcap' s _ _ _ s' c' r Hc Ht
             (mt_var_steps_sim cap tcap s lvl) (mt_var_steps_sim cap' tcap' s lvl) E').
  reflexivity.
Qed.
