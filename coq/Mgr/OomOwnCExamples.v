(** * C14o - the complement-edge ownership model on a concrete manager: non-vacuity,
      refutation of the late guard placement in `binary` / `ternary`

    [exc]: three variables x0 = node 1, x1 = node 2, x2 = node 3 (level i, [T, ¬T]),
    node 4 = (level 0, [x1, x2]), node 5 = (level 0, [x2, ¬x1]); the caller owns the
    five edges 4, ¬5, 1, 2, ¬3 (tokens carry the tag).  Counts exact ([exc_inv]). *)

From Coq Require Import List NArith PArith Bool Arith Lia Permutation.
From OxiVerif Require Import DD.Table DD.TableProofs DD.Sem DD.Build DD.Apply DD.ApplyBcdd
  Mgr.Conc Mgr.ConcBase Mgr.ConcProofs Mgr.ConcSnap Mgr.ConcGc Mgr.ConcGcProofs
  Mgr.OomOwn Mgr.OomOwnProofs Mgr.OomOwnZK Mgr.OomOwnZKProofs Mgr.OomOwnZGc Mgr.OomOwnZThms
  Mgr.OomOwnC Mgr.OomOwnCProofs Mgr.OomOwnCThms.
Import ListNotations.

Definition cterms : list (N * N) := [(0%N, 1%N)].
Definition cT := mkEdge (RT 0%N) false.
Definition cF := mkEdge (RT 0%N) true.
Definition cN (p : positive) := E (RN p).
Definition cNn (p : positive) := mkEdge (RN p) true.

Definition exc : cst := mkCst
  [ (5%positive, mkC 0 [cN 3; cNn 2] 1%N);
    (4%positive, mkC 0 [cN 2; cN 3] 1%N);
    (3%positive, mkC 2 [cT; cF] 3%N);
    (2%positive, mkC 1 [cT; cF] 3%N);
    (1%positive, mkC 0 [cT; cF] 1%N) ]
  [ (0, cN 4); (0, cNn 5); (0, cN 1); (0, cN 2); (0, cNn 3) ].

Example exc_inv : CInv KBcdd cterms 3 exc /\ terms_unique_b cterms = true.
Proof. split; [apply cinv_b_spec; vm_compute; reflexivity | reflexivity]. Qed.

Definition cout {C} (r : eres C) :=
  (eres_code r, option_map cnode_count (eres_st r),
   option_map (fun s => length (cown s)) (eres_st r), eres_edge r,
   option_map (cinv_b KBcdd cterms 3) (eres_st r)).

(** node 4 <op> node 5 for capacities 5 .. 8, both recursors: five tokens after a
    failure, six after a result (the xor result is a complemented edge), counts exact *)
Example exc_ops : forall p,
  map (fun op => map (fun cap => cout (cop_on cterms 3 0 cap p guards_code exc op (cN 4) (cN 5))) [5; 6; 7; 8])
      [OAnd; OXor; OEquiv] =
  [ [(1, Some 5, Some 5, None, Some true); (1, Some 6, Some 5, None, Some true);
     (1, Some 7, Some 5, None, Some true); (0, Some 8, Some 6, Some (cN 8), Some true)];
    [(1, Some 5, Some 5, None, Some true); (1, Some 6, Some 5, None, Some true);
     (0, Some 7, Some 6, Some (cNn 7), Some true); (0, Some 7, Some 6, Some (cNn 7), Some true)];
    [(1, Some 5, Some 5, None, Some true); (1, Some 6, Some 5, None, Some true);
     (0, Some 7, Some 6, Some (cN 7), Some true); (0, Some 7, Some 6, Some (cN 7), Some true)] ].
Proof. intros [|]; vm_compute; reflexivity. Qed.

Example exc_ite_not : forall p,
  map (fun cap => cout (cite_on cterms 3 0 cap p guards_code exc (cN 2) (cN 4) (cN 5))) [5; 6; 7; 8] =
  [(1, Some 5, Some 5, None, Some true); (1, Some 6, Some 5, None, Some true);
   (1, Some 7, Some 5, None, Some true); (0, Some 8, Some 6, Some (cN 8), Some true)] /\
  cout (cnot_on cterms 3 0 exc (cN 4)) = (0, Some 5, Some 6, Some (cNn 4), Some true).
Proof. intros [|]; split; vm_compute; reflexivity. Qed.

(** the failed conjunction with 6 slots: the then-branch created node 6, the
    else-branch ran out of memory; the recursor's guard released node 6 (count 0),
    the tokens are literally the caller's, the collection returns the original table *)
Example exc_and_garbage :
  match cop_on cterms 3 0 6 false guards_code exc OAnd (cN 4) (cN 5) with
  | EErr s' _ =>
      cown s' = cown exc /\
      map (fun p => (fst p, crc (snd p))) (cn s') =
        [(6%positive, 0%N); (5%positive, 1%N); (4%positive, 1%N); (3%positive, 4%N);
         (2%positive, 3%N); (1%positive, 1%N)] /\
      collect KBcdd cterms 3 s' = exc
  | _ => False
  end.
Proof. vm_compute. repeat split; reflexivity. Qed.

(** ** Refutation: the recursor guards created after both `?` *)

Definition cleaks {C} (s : cst) (o : eres C) : Prop :=
  match o with
  | EErr s' _ =>
      ~ Permutation (cown s') (cown s) /\
      length (cown s') = S (length (cown s)) /\
      exists id, cfind (cn s) id = None /\
                 cfind (cn (collect KBcdd cterms 3 s')) id <> None
  | _ => False
  end.

Lemma cleaks_intro : forall C s id (o : eres C),
  match o with EErr s' _ => leak_b KBcdd cterms 3 s id s' | _ => false end = true -> cleaks s o.
Proof. intros C s id [s' c r|s' c|] H; try discriminate. exact (leak_b_sound _ _ _ _ _ _ H). Qed.

Theorem ownc_balance_late_refuted : forall p,
  cleaks exc (cop_on cterms 3 0 6 p guards_late_all exc OAnd (cN 4) (cN 5)) /\
  cleaks exc (cite_on cterms 3 0 6 p guards_late_ternary exc (cN 2) (cN 4) (cN 5)) /\
  kown_post KBcdd cterms 3 0 unit exc (cop_on cterms 3 0 6 p guards_code exc OAnd (cN 4) (cN 5)) /\
  eres_code (cop_on cterms 3 0 6 p guards_code exc OAnd (cN 4) (cN 5)) = 1 /\
  eres_code (cite_on cterms 3 0 6 p guards_code exc (cN 2) (cN 4) (cN 5)) = 1.
Proof.
  intros p. split; [|split; [|split; [apply ownc_balance_op | split; destruct p; vm_compute; reflexivity]]];
    destruct p; apply (cleaks_intro _ _ 6%positive); vm_compute; reflexivity.
Qed.
