(** * C14o - ownership balance of the complement-edge apply algorithms (Mgr/OomOwnC.v),
      for every outcome, capacity, cache, recursor, operand order and fuel;
      invariant-free *)

From Coq Require Import List NArith PArith Bool Arith Lia Permutation.
From OxiVerif Require Import DD.Table DD.TableProofs DD.Sem DD.Build DD.Apply DD.ApplyBcdd
  Mgr.Conc Mgr.ConcBase Mgr.ConcProofs Mgr.OomOwn Mgr.OomOwnProofs Mgr.OomOwnZK Mgr.OomOwnZKProofs Mgr.OomOwnC.
Import ListNotations.

Arguments N.add : simpl never.
Arguments N.sub : simpl never.
Arguments N.mul : simpl never.

Section Proofs.
Variable terms : list (N * N).
Variable nl : nat.
Variable tid : nat.
Variable cap : nat.

Notation toke := (toke tid).
Notation c_reduce := (c_reduce terms nl tid cap).

Lemma c_reduce_spec : forall s lvl t e, gbal KBcdd terms nl tid s (toke t ++ toke e) (c_reduce s lvl t e).
Proof.
  intros s lvl t e. unfold OomOwnC.c_reduce. destruct (edge_eqb t e).
  - destruct (e_drop terms tid s e) as [s1|] eqn:Hd; [|exact I].
    destruct (e_drop_spec KBcdd terms nl tid _ _ _ Hd) as [M Fr]. split; [|exact Fr].
    intro x. generalize (M x). mq.
  - destruct (etag t).
    + destruct (e_not KBcdd terms tid s t) as [s1|] eqn:H1; [|exact I].
      destruct (e_not_spec KBcdd terms nl tid _ _ _ H1) as [M1 F1].
      destruct (e_not KBcdd terms tid s1 e) as [s2|] eqn:H2; [|exact I].
      destruct (e_not_spec KBcdd terms nl tid _ _ _ H2) as [M2 F2].
      pose proof (e_goi_spec KBcdd terms nl tid cap s2 lvl (eflip t) (eflip e)) as G.
      destruct (e_goi KBcdd terms nl tid cap s2 lvl (eflip t) (eflip e)) as [s3 h|s3|]; [| |exact I].
      * destruct G as [M3 F3].
        destruct (e_not KBcdd terms tid s3 h) as [s4|] eqn:H4; [|exact I].
        destruct (e_not_spec KBcdd terms nl tid _ _ _ H4) as [M4 F4].
        split; [|eapply frame_trans; [|exact F4]; eapply frame_trans; [|exact F3];
                 eapply frame_trans; eauto].
        intro x. generalize (M1 x) (M2 x) (M3 x) (M4 x). mq.
      * destruct G as [M3 F3].
        split; [|eapply frame_trans; [|exact F3]; eapply frame_trans; eauto].
        intro x. generalize (M1 x) (M2 x) (M3 x). mq.
    + apply e_goi_spec.
Qed.

Section Alg.
Variable lt : edge -> edge -> bool.
Variable C : Type.
Variable cget : C -> N -> list edge -> option edge.
Variable cadd : C -> N -> list edge -> edge -> C.
Variable par : nat -> bool.

Notation kbal := (kbal KBcdd terms nl tid C).
Notation cbin_step_o := (cbin_step_o terms nl tid cap C cget cadd guards_code).
Notation cbin_o := (cbin_o terms nl tid cap lt C cget cadd par guards_code).
Notation onot_o := (onot_o terms tid C).
Notation cnot_o := (cnot_o terms tid C).
Notation cop_o := (cop_o terms nl tid cap lt C cget cadd par guards_code).
Notation cite_step_o := (cite_step_o terms nl tid cap C cget cadd guards_code).
Notation cite_o := (cite_o terms nl tid cap lt C cget cadd par guards_code).

Lemma cfin_bal : forall s c lvl t e upd,
  kbal s (toke t ++ toke e) (efin terms tid C (c_reduce s lvl t e) c upd).
Proof. intros. apply efin_bal. apply c_reduce_spec. Qed.

Lemma cbin_step_o_bal : forall p rec s c op f fnode g gnode,
  (forall s' c' f' g', kbal s' [] (rec s' c' f' g')) ->
  kbal s [] (cbin_step_o p rec s c op f fnode g gnode).
Proof.
  intros p rec s c op f fnode g gnode Hr. unfold OomOwnC.cbin_step_o.
  destruct (cget c (cop_code op) [f; g]) as [h|]; [apply eclone_ret_bal|]. cbv zeta.
  destruct (ApplyBcdd.ccof2 f fnode _) as [[ft fe]|]; [|exact I].
  destruct (ApplyBcdd.ccof2 g gnode _) as [[gt ge]|]; [|exact I].
  apply erec2_bal; [apply Hr | intros; apply Hr | intros; apply cfin_bal].
Qed.

Lemma cbin_o_bal : forall fuel s c op f g, kbal s [] (cbin_o fuel s c op f g).
Proof.
  induction fuel as [|n IH]; intros s c op f g; [exact I|].
  cbn [OomOwnC.cbin_o].
  destruct (cc_terminal terms s op f g) as [h|fnode gnode|]; [apply eclone_ret_bal | | exact I].
  destruct (lt f g); apply cbin_step_o_bal; intros; apply IH.
Qed.

Lemma onot_o_bal : forall s r, kbal s [] r -> kbal s [] (onot_o r).
Proof.
  intros s r B. unfold OomOwnC.onot_o. apply ebind_bal; [exact B|].
  intros s1 c1 e. destruct (e_not KBcdd terms tid s1 e) as [s'|] eqn:H; [|exact I].
  simpl. apply (e_not_spec KBcdd terms nl tid _ _ _ H).
Qed.

Lemma cnot_o_bal : forall s c f, kbal s [] (cnot_o s c f).
Proof. intros. unfold OomOwnC.cnot_o. apply onot_o_bal. apply eclone_ret_bal. Qed.

Lemma cop_o_bal : forall fuel s c o f g, kbal s [] (cop_o fuel s c o f g).
Proof.
  intros fuel s c o f g. unfold OomOwnC.cop_o.
  destruct o; try apply onot_o_bal; apply cbin_o_bal.
Qed.

Lemma cite_step_o_bal : forall p rec s c f fnode g gnode h hnode,
  (forall s' c' f' g' h', kbal s' [] (rec s' c' f' g' h')) ->
  kbal s [] (cite_step_o p rec s c f fnode g gnode h hnode).
Proof.
  intros p rec s c f fnode g gnode h hnode Hr. unfold OomOwnC.cite_step_o.
  destruct (cget c ccode_ite [f; g; h]) as [r|]; [apply eclone_ret_bal|]. cbv zeta.
  destruct (ApplyBcdd.ccof2 f fnode _) as [[ft fe]|]; [|exact I].
  destruct (ApplyBcdd.ccof2 g gnode _) as [[gt ge]|]; [|exact I].
  destruct (ApplyBcdd.ccof2 h hnode _) as [[ht he]|]; [|exact I].
  apply erec2_bal; [apply Hr | intros; apply Hr | intros; apply cfin_bal].
Qed.

Lemma cite_o_bal : forall fuel s c f g h, kbal s [] (cite_o fuel s c f g h).
Proof.
  induction fuel as [|n IH]; intros s c f g h; [exact I|].
  cbn [OomOwnC.cite_o].
  destruct (ref_eqb (eref g) (eref h)).
  { destruct (Bool.eqb (etag g) (etag h)); [apply eclone_ret_bal | apply onot_o_bal; apply cbin_o_bal]. }
  destruct (ref_eqb (eref f) (eref g)).
  { destruct (Bool.eqb (etag f) (etag g)); [apply onot_o_bal|]; apply cbin_o_bal. }
  destruct (ref_eqb (eref f) (eref h)).
  { destruct (Bool.eqb (etag f) (etag h)); [|apply onot_o_bal]; apply cbin_o_bal. }
  destruct (bc_view terms s f) as [[fnode|]|]; [| apply eclone_ret_bal | exact I].
  destruct (bc_view terms s g) as [[gnode|]|]; destruct (bc_view terms s h) as [[hnode|]|]; try exact I.
  - apply cite_step_o_bal. intros; apply IH.
  - destruct (etag h); [|apply onot_o_bal]; apply cbin_o_bal.
  - destruct (etag g); [|apply onot_o_bal]; apply cbin_o_bal.
  - destruct (etag h); [|apply onot_o_bal]; apply cbin_o_bal.
Qed.

End Alg.
End Proofs.
