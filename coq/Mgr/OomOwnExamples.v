(** * C14x - the hypotheses are satisfiable, every outcome occurs, and the statements
      have teeth: the seeded guard placement violates them

    [ex3o] is the table [ex3] of Mgr/OomExamples.v (3 levels, 6 nodes, h0 = l0 /\ l1 /\ l2,
    ...) as a state of the interleaving model: exact counts, five tokens of thread 0
    (the handles).  On it: the outcomes of [not_o] for the capacities 0 .. 10 (the same
    OOM-or-not and node counts as [not_nc] of Mgr/Oom.v), the garbage a failed run
    leaves behind with exact counts, the collection that removes it, and the
    REFUTATIONS: with the guards of the recursor created only after both `?`
    ([guards_late_ternary], the seeded `ternary` slip; [guards_late_all]) a failing
    second branch leaks the first branch's edge: BALANCE (statement 1) is violated and
    the collection does NOT return the table to the reachable part of the original
    (statement 4) - for the sequential and for the parallel recursor. *)

From Coq Require Import List NArith PArith Bool Arith Lia Permutation.
From OxiVerif Require Import DD.Table DD.TableProofs DD.Sem DD.Build DD.Apply DD.ApplyProofs
  Mgr.Conc Mgr.ConcBase Mgr.ConcProofs Mgr.ConcSnap Mgr.ConcGc Mgr.ConcGcProofs
  Mgr.OomOwn Mgr.OomOwnProofs Mgr.OomOwnSafe Mgr.OomOwnGc Mgr.OomOwnThms.
Import ListNotations.

Definition ex_terms : list (N * N) := [(0%N, 0%N); (1%N, 1%N)].
Definition T0 : edge := E (RT 0).
Definition T1 : edge := E (RT 1).

Definition ex3o : cst := mkCst
  [(6%positive, mkC 0 [E (RN 2); E (RN 4)] 1);
   (5%positive, mkC 0 [E (RN 4); T0] 1);
   (4%positive, mkC 1 [E (RN 1); T0] 2);
   (3%positive, mkC 0 [T1; T0] 1);
   (2%positive, mkC 1 [T1; T0] 2);
   (1%positive, mkC 2 [T1; T0] 2)]
  [(0, E (RN 5)); (0, E (RN 3)); (0, E (RN 2)); (0, E (RN 1)); (0, E (RN 6))].

Example ex3o_inv : CInv KBdd ex_terms 3 ex3o.
Proof. apply cinv_b_spec. vm_compute. reflexivity. Qed.

Example ex_terms_ok : bterms_ok ex_terms /\ terms_unique_b ex_terms = true.
Proof.
  split; [|reflexivity]. split; [|split; [eexists; reflexivity | split; [eexists; reflexivity|]]].
  2: { intros t0 t1 H0 H1. vm_compute in H0, H1. inversion H0; inversion H1; subst. discriminate. }
  intros x v H. unfold ex_terms in H.
  destruct x as [|[q|q|]]; simpl in H; try discriminate; inversion H; auto.
Qed.

(** the empty association-list cache and the cache that stores nothing *)
Example ex_cache_ok : forall t, COK ex_terms 3 acache ac_get t [] /\ COK ex_terms 3 unit nc_get t tt.
Proof. intros t. split; intros code args h G; discriminate. Qed.

Example ex3o_stored : forall i, In i [1; 2; 3; 4; 5; 6]%positive -> stored ex_terms (cn ex3o) (RN i).
Proof. intros i H. simpl in H. repeat (destruct H as [<-|H]; [reflexivity|]). destruct H. Qed.

Example ex3o_state : CInv KBdd ex_terms 3 ex3o /\ bterms_ok ex_terms /\
  terms_unique_b ex_terms = true /\ COK ex_terms 3 acache ac_get (cn ex3o) [] /\
  (forall i, In i [1; 2; 3; 4; 5; 6]%positive -> stored ex_terms (cn ex3o) (RN i)).
Proof.
  exact (conj ex3o_inv (conj (proj1 ex_terms_ok) (conj (proj2 ex_terms_ok)
          (conj (proj1 (ex_cache_ok (cn ex3o))) ex3o_stored)))).
Qed.

(** outcome (0 = result, 1 = out of memory, 2 = stuck), stored nodes, tokens owned,
    result, executable invariant *)
Definition oout {C} (r : ores C) :=
  (ores_code r, option_map cnode_count (ores_st r),
   option_map (fun s => length (cown s)) (ores_st r), ores_ref r,
   option_map (cinv_b KBdd ex_terms 3) (ores_st r)).

(** not (l0 /\ l1 /\ l2): as [ex3_not] of Mgr/OomExamples.v; five tokens after a
    failure, six after a success, counts exact *)
Example ex3o_not : forall p,
  map (fun cap => oout (not_on ex_terms 3 0 cap p guards_code ex3o (RN 5))) [0; 6; 7; 8; 9; 10] =
  [(1, Some 6, Some 5, None, Some true); (1, Some 6, Some 5, None, Some true);
   (1, Some 7, Some 5, None, Some true); (1, Some 8, Some 5, None, Some true);
   (0, Some 9, Some 6, Some (RN 9), Some true); (0, Some 9, Some 6, Some (RN 9), Some true)].
Proof. intros [|]; vm_compute; reflexivity. Qed.

Example ex3o_xor_ite :
  map (fun cap => oout (bin_on ex_terms 3 0 cap true guards_code ex3o OXor (RN 5) (RN 2))) [6; 7; 8; 9] =
  [(1, Some 6, Some 5, None, Some true); (1, Some 7, Some 5, None, Some true);
   (1, Some 8, Some 5, None, Some true); (0, Some 9, Some 6, Some (RN 9), Some true)] /\
  map (fun cap => oout (ite_on ex_terms 3 0 cap false guards_code ex3o (RN 2) (RN 5) (RN 1))) [6; 7; 8] =
  [(1, Some 6, Some 5, None, Some true); (1, Some 7, Some 5, None, Some true);
   (0, Some 8, Some 6, Some (RN 8), Some true)].
Proof. split; vm_compute; reflexivity. Qed.

(** the failed run with capacity 8 leaves two dead nodes (7: count 1 = its parent 8,
    8: count 0), the tokens are literally the caller's, and the collection removes
    exactly the two: the table is the original one *)
Example ex3o_not_garbage :
  match not_on ex_terms 3 0 8 false guards_code ex3o (RN 5) with
  | OErr s' _ =>
      cown s' = cown ex3o /\
      map (fun p => (fst p, crc (snd p))) (cn s') =
        [(8%positive, 0%N); (7%positive, 1%N); (6%positive, 1%N); (5%positive, 1%N);
         (4%positive, 2%N); (3%positive, 1%N); (2%positive, 2%N); (1%positive, 2%N)] /\
      collect KBdd ex_terms 3 s' = ex3o
  | _ => False
  end.
Proof. vm_compute. repeat split; reflexivity. Qed.

(** instance of statement 3 (TOTAL): its hypotheses hold for [ex3o] *)
Example ex3o_total : forall cap par fuel i j k, S 3 <= fuel ->
  In i [1; 2; 3; 4; 5; 6]%positive -> In j [1; 2; 3; 4; 5; 6]%positive ->
  In k [1; 2; 3; 4; 5; 6]%positive ->
  own_total ex_terms 3 acache ac_get
    (ite_o ex_terms 3 0 cap gt_no acache ac_get ac_add par guards_code fuel ex3o [] (RN i) (RN j) (RN k)).
Proof.
  intros cap par fuel i j k Hf Hi Hj Hk.
  apply (own_total_ite ex_terms 3 0 cap gt_no acache ac_get ac_add par (proj1 ex_terms_ok) ac_lossy);
    auto using ex3o_inv, ex3o_stored. apply (proj1 (ex_cache_ok _)).
Qed.

(** ** Refutations: the variant with the guards created after the second `?` *)

(** what a leak looks like: the run fails, the thread owns one token more than before
    (so BALANCE is false), and after the collection a node that did not exist before
    the operation is still stored (so ROLLBACK is false) *)
Definition leaks {C} (s : cst) (o : ores C) : Prop :=
  match o with
  | OErr s' _ =>
      ~ Permutation (cown s') (cown s) /\
      length (cown s') = S (length (cown s)) /\
      exists id, cfind (cn s) id = None /\
                 cfind (cn (collect KBdd ex_terms 3 s')) id <> None
  | _ => False
  end.

Lemma leaks_intro : forall C s id (o : ores C),
  match o with OErr s' _ => leak_b KBdd ex_terms 3 s id s' | _ => false end = true -> leaks s o.
Proof. intros C s id [s' c r|s' c|] H; try discriminate. exact (leak_b_sound _ _ _ _ _ _ H). Qed.

(** the seeded slip of `ParallelRecursor::ternary` (and its sequential analogue):
    if x2 then x0 else x1 with 8 slots - the then-branch creates a node, the
    else-branch runs out of memory, the then-result is forgotten *)
Theorem own_balance_late_ternary_refuted : forall p,
  leaks ex3o (ite_on ex_terms 3 0 8 p guards_late_ternary ex3o (RN 1) (RN 3) (RN 2)) /\
  own_post ex_terms 3 0 unit ex3o (ite_on ex_terms 3 0 8 p guards_code ex3o (RN 1) (RN 3) (RN 2)) /\
  ores_code (ite_on ex_terms 3 0 8 p guards_code ex3o (RN 1) (RN 3) (RN 2)) = 1.
Proof.
  intros p. split; [|split; [apply own_balance_ite | destruct p; vm_compute; reflexivity]].
  destruct p; apply (leaks_intro _ _ 7%positive); vm_compute; reflexivity.
Qed.

(** the same slip in `unary` / `binary` *)
Theorem own_balance_late_unary_binary_refuted : forall p,
  leaks ex3o (not_on ex_terms 3 0 8 p guards_late_all ex3o (RN 6)) /\
  leaks ex3o (bin_on ex_terms 3 0 8 p guards_late_all ex3o OXor (RN 1) (RN 6)).
Proof.
  intros p. destruct p; split; apply (leaks_intro _ _ 7%positive); vm_compute; reflexivity.
Qed.
