(** * C14x / C14o - ownership balance and exact reference counts of the bounded apply
      algorithms, for every outcome (invariant-free part)

    For every table, token multiset, cache, capacity, recursor, fuel and operands:
    whatever [not_o] / [bin_o] / [ite_o] (Mgr/OomOwn.v, guard placement of the code)
    return,

      BALANCE  [OOk s' _ r]: the tokens owned afterwards are the tokens owned before
               plus one token for [r];  [OErr s' _]: exactly the tokens owned before
               (as multisets: nothing leaked, nothing released twice);
      FRAME    every node stored before is stored afterwards with the same level and
               children ([ext]);
      COUNTS   the invariant [CInv] of Mgr/ConcProofs.v (table structurally intact,
               owned edges valid, reference counts EXACT = owners + parents) is
               preserved.

    The primitives (clone, drop, get_or_insert, unwind) and the recursor are treated
    once, on edges and for every kind (Mgr/OomOwnZK.v): [kbal s l o] is the balance of a
    computation [o] that additionally consumes the tokens [l] (the continuation of the
    recursors consumes the two sub-results).  The reference-level primitives of
    Mgr/OomOwn.v are those of kind [KBdd] on untagged edges ([o_drop_E], [o_clone_E],
    [o_goi_E], [unwind_E], [ek_rec2]); [bal] is [kbal] read through [ek]. *)

From Coq Require Import List NArith PArith Bool Arith Lia Permutation.
From OxiVerif Require Import DD.Table DD.TableProofs DD.Sem DD.Build DD.Apply
  Mgr.Conc Mgr.ConcBase Mgr.ConcProofs Mgr.OomOwn Mgr.OomOwnZK.
Import ListNotations.

Arguments N.add : simpl never.
Arguments N.sub : simpl never.
Arguments N.mul : simpl never.

(** ** multisets of tokens *)

Definition ref_dec : forall a b : ref, {a = b} + {a <> b}.
Proof. decide equality; [apply N.eq_dec | apply Pos.eq_dec]. Defined.

Definition edge_dec : forall a b : edge, {a = b} + {a <> b}.
Proof. decide equality; [apply Bool.bool_dec | apply ref_dec]. Defined.

Definition tok_dec : forall a b : nat * edge, {a = b} + {a <> b}.
Proof. decide equality; [apply edge_dec | apply Nat.eq_dec]. Defined.

(** equal as multisets *)
Definition meq (l l' : list (nat * edge)) : Prop :=
  forall x, count_occ tok_dec l x = count_occ tok_dec l' x.

Lemma meq_perm : forall l l', meq l l' <-> Permutation l l'.
Proof. intros l l'. symmetry. apply (Permutation_count_occ tok_dec). Qed.

Lemma count_occ_cons_split : forall (a : nat * edge) l x,
  count_occ tok_dec (a :: l) x = count_occ tok_dec [a] x + count_occ tok_dec l x.
Proof. intros a l x. simpl. destruct (tok_dec a x); lia. Qed.

Ltac split_cons :=
  repeat match goal with
         | |- context [count_occ tok_dec (?a :: ?l) ?x] =>
           lazymatch l with
           | nil => fail
           | _ => rewrite (count_occ_cons_split a l x)
           end
         end.

(** [intro x. generalize (M1 x) .. (Mn x). mq.] *)
Ltac mq :=
  cbn [OomOwn.tokr cown cn];
  repeat rewrite count_occ_app;
  split_cons;
  repeat rewrite count_occ_nil;
  intros; lia.

Lemma meq_refl : forall l, meq l l.
Proof. intros l x. reflexivity. Qed.

Lemma meq_In : forall l l' x, meq l l' -> In x l -> In x l'.
Proof.
  intros l l' x H Hin. apply (count_occ_In tok_dec). rewrite <- (H x).
  apply (count_occ_In tok_dec). exact Hin.
Qed.

Lemma take_tok_meq : forall x own own', take_tok x own = Some own' -> meq own ([x] ++ own').
Proof.
  induction own as [|y r IH]; intros own' H; simpl in H; [discriminate|].
  destruct (tok_eqb x y) eqn:E.
  - apply tok_eqb_eq in E. subst y. inversion H; subst. apply meq_refl.
  - destruct (take_tok x r) as [r'|] eqn:Er; [|discriminate]. inversion H; subst.
    specialize (IH r' eq_refl). intro z. specialize (IH z). simpl in *.
    destruct (tok_dec y z); destruct (tok_dec x z); lia.
Qed.

(** every node stored in [s] is stored in [s'] with the same level and children *)
Definition ext (s s' : cst) : Prop :=
  forall id nd, cfind (cn s) id = Some nd ->
    exists nd', cfind (cn s') id = Some nd' /\ cl nd' = cl nd /\ cch nd' = cch nd.

Lemma ext_refl : forall s, ext s s.
Proof. intros s id nd F. exists nd. auto. Qed.

Lemma ext_trans : forall a b c, ext a b -> ext b c -> ext a c.
Proof.
  intros a b c H1 H2 id nd F. destruct (H1 id nd F) as [nd1 [F1 [L1 C1]]].
  destruct (H2 id nd1 F1) as [nd2 [F2 [L2 C2]]]. exists nd2. split; [exact F2|]. split; congruence.
Qed.

Lemma ext_shape : forall s s', cn_shape (cn s') = cn_shape (cn s) -> ext s s'.
Proof. intros s s' E id nd F. apply (shape_eq_find (cn s) (cn s') id nd (eq_sym E) F). Qed.

Lemma cmax_ge : forall t id nd, cfind t id = Some nd -> (id <= cmax t)%positive.
Proof.
  induction t as [|[i n] r IH]; intros id nd F; simpl in F; [discriminate|].
  simpl. destruct (Pos.eqb_spec i id) as [->|_].
  - apply Pos.le_max_l.
  - etransitivity; [apply (IH id nd F) | apply Pos.le_max_r].
Qed.

Lemma cfresh_absent : forall t, cfind t (cfresh t) = None.
Proof.
  intros t. destruct (cfind t (cfresh t)) as [nd|] eqn:F; [|reflexivity].
  pose proof (cmax_ge t _ nd F). unfold cfresh in *. lia.
Qed.

Section Kind.
Variable k : kind.
Variable terms : list (N * N).
Variable nl : nat.
Variable tid : nat.
Variable cap : nat.

Notation CInv := (CInv k terms nl).
Notation toke := (toke tid).
Notation e_clone := (e_clone k terms tid).
Notation e_drop := (e_drop terms tid).
Notation e_goi := (e_goi k terms nl tid cap).
Notation eunwind := (eunwind terms tid).

Definition frame_ok (s s' : cst) : Prop := ext s s' /\ (CInv s -> CInv s').

Lemma frame_refl : forall s, frame_ok s s.
Proof. intros s. split; [apply ext_refl | auto]. Qed.

Lemma frame_trans : forall a b c, frame_ok a b -> frame_ok b c -> frame_ok a c.
Proof. intros a b c [E1 I1] [E2 I2]. split; [eapply ext_trans; eauto | auto]. Qed.

Lemma e_clone_spec : forall s e s', e_clone s e = Some s' ->
  meq (cown s') (toke e ++ cown s) /\ frame_ok s s'.
Proof.
  intros s e s' H. unfold OomOwnZK.e_clone in H.
  destruct (edge_ok_b k terms (cn s) e) eqn:Hok; [|discriminate].
  unfold OomOwnZK.toke. destruct (eref e) as [x|id] eqn:Er.
  - inversion H; subst. split; [apply meq_refl | apply frame_refl].
  - inversion H; subst. simpl. split; [apply meq_refl|]. split.
    + apply ext_shape. simpl. apply cn_shape_rc_upd.
    + intros I. apply (inv_retain k terms nl s tid e id I Er Hok).
Qed.

Lemma e_drop_spec : forall s e s', e_drop s e = Some s' ->
  meq (toke e ++ cown s') (cown s) /\ frame_ok s s'.
Proof.
  intros s e s' H. unfold OomOwnZK.e_drop in H. unfold OomOwnZK.toke.
  destruct (eref e) as [x|id] eqn:Er.
  - destruct (cref_ok_b terms (cn s) (RT x)); inversion H; subst.
    split; [apply meq_refl | apply frame_refl].
  - destruct (cfind (cn s) id) as [nd|] eqn:F; [|discriminate].
    destruct (N.eqb (crc nd) 0); [discriminate|].
    destruct (take_tok (tid, e) (cown s)) as [own'|] eqn:Ht; [|discriminate].
    inversion H; subst. simpl. split.
    + pose proof (take_tok_meq _ _ _ Ht) as M. intro x. generalize (M x). mq.
    + split.
      * apply ext_shape. simpl. apply cn_shape_rc_upd.
      * intros I. apply (inv_release k terms nl s tid e id own' I Er Ht).
Qed.

Lemma take_toks_meq : forall t e own own1, take_toks tid [t; e] own = Some own1 ->
  meq own (toke t ++ toke e ++ own1).
Proof.
  intros t e own own1 H. simpl in H. unfold OomOwnZK.toke.
  destruct (eref t) as [x|i]; destruct (eref e) as [y|j]; simpl in *.
  - inversion H; subst. apply meq_refl.
  - destruct (take_tok (tid, e) own) as [o1|] eqn:H1; [|discriminate].
    inversion H; subst. exact (take_tok_meq _ _ _ H1).
  - destruct (take_tok (tid, t) own) as [o1|] eqn:H1; [|discriminate].
    inversion H; subst. exact (take_tok_meq _ _ _ H1).
  - destruct (take_tok (tid, t) own) as [o1|] eqn:H1; [|discriminate].
    destruct (take_tok (tid, e) o1) as [o2|] eqn:H2; [|discriminate].
    inversion H; subst.
    pose proof (take_tok_meq _ _ _ H1) as M1. pose proof (take_tok_meq _ _ _ H2) as M2.
    intro x. generalize (M1 x) (M2 x). mq.
Qed.

(** `node.drop_with(|e| drop_edge(e))` of a node that owns its child edges *)
Lemma inv_release_children : forall ch t own own1, CInv (mkCst t own) ->
  take_toks tid ch own = Some own1 -> CInv (mkCst (dec_children t ch) own1).
Proof.
  induction ch as [|e r IH]; intros t own own1 I H; simpl in H.
  - inversion H; subst. exact I.
  - simpl dec_children. destruct (eref e) as [x|id] eqn:Er.
    + simpl. apply (IH t own own1 I H).
    + destruct (take_tok (tid, e) own) as [o1|] eqn:H1; [|discriminate]. simpl.
      apply (IH (rc_dec id t) o1 own1); [|exact H].
      apply (inv_release k terms nl (mkCst t own) tid e id o1 I Er H1).
Qed.

Lemma toke_E : forall id, toke (E (RN id)) = [(tid, E (RN id))].
Proof. reflexivity. Qed.

(** balance of a `get_or_insert` / `reduce` that consumes the tokens [l] *)
Definition gbal (s : cst) (l : list (nat * edge)) (r : krres) : Prop :=
  match r with
  | KOk s' h => meq (l ++ cown s') (toke h ++ cown s) /\ frame_ok s s'
  | KErr s' => meq (l ++ cown s') (cown s) /\ frame_ok s s'
  | KStuck => True
  end.

Lemma e_goi_spec : forall s lvl t e, gbal s (toke t ++ toke e) (e_goi s lvl t e).
Proof.
  intros s lvl t e. unfold OomOwnZK.e_goi, gbal.
  destruct (node_pre_b k terms nl (cn s) lvl [t; e]) eqn:Hpre; [|exact I].
  destruct (take_toks tid [t; e] (cown s)) as [own1|] eqn:Ht; [|exact I].
  pose proof (take_toks_meq _ _ _ _ Ht) as M.
  destruct (find_shape (cn s) lvl [t; e]) as [id|] eqn:Hf.
  - destruct (dec_ok_b (cn s) [t; e]); [|exact I]. rewrite toke_E. cbn [cown cn]. split.
    + intro x. generalize (M x). mq.
    + split.
      * apply ext_shape. cbn [cn]. unfold rc_inc. rewrite cn_shape_rc_upd, cn_shape_dec_children.
        reflexivity.
      * intros H. apply (inv_goi_found k terms nl s tid lvl _ own1 id H Ht Hf).
  - destruct (Nat.ltb (cnode_count s) cap).
    + rewrite toke_E. cbn [cown cn]. split.
      * intro x. generalize (M x). mq.
      * split.
        -- intros id nd F. exists nd. cbn [cn]. rewrite cfind_cons.
           destruct (Pos.eqb_spec (cfresh (cn s)) id) as [Eq|_]; [|auto].
           rewrite <- Eq, cfresh_absent in F. discriminate.
        -- intros H. apply (inv_goi_new k terms nl s tid lvl _ own1 _ H Hpre Ht Hf).
           apply cfresh_absent.
    + destruct (dec_ok_b (cn s) [t; e]); [|exact I]. cbn [cown cn]. split.
      * intro x. generalize (M x). mq.
      * split.
        -- apply ext_shape. cbn [cn]. apply cn_shape_dec_children.
        -- intros H. apply (inv_release_children _ (cn s) (cown s) own1); [|exact Ht].
           destruct s; exact H.
Qed.

(** the tokens the guards of a frame release *)
Fixpoint egtoks (fr : eframe) : list (nat * edge) :=
  match fr with
  | [] => []
  | (r, true) :: rest => toke r ++ egtoks rest
  | (_, false) :: rest => egtoks rest
  end.

Lemma eunwind_spec : forall fr s s', eunwind s fr = Some s' ->
  meq (egtoks fr ++ cown s') (cown s) /\ frame_ok s s'.
Proof.
  induction fr as [|[r g] rest IH]; intros s s' H; simpl in H.
  - inversion H; subst. split; [apply meq_refl | apply frame_refl].
  - destruct g.
    + destruct (e_drop s r) as [s1|] eqn:Hd; [|discriminate].
      destruct (e_drop_spec _ _ _ Hd) as [M1 F1]. destruct (IH s1 s' H) as [M2 F2].
      split; [|eapply frame_trans; eauto].
      intro x. generalize (M1 x) (M2 x). cbn [egtoks]. mq.
    + apply (IH s s' H).
Qed.

Section Comb.
Variable C : Type.

Definition kbal (s : cst) (l : list (nat * edge)) (o : eres C) : Prop :=
  match o with
  | EOk s' _ r => meq (l ++ cown s') (toke r ++ cown s) /\ frame_ok s s'
  | EErr s' _ => meq (l ++ cown s') (cown s) /\ frame_ok s s'
  | EStuck => True
  end.

Notation eerr := (eerr terms tid C).

(** transport along multiset equality of the consumed tokens *)
Lemma kbal_meq : forall s l l' o, meq l l' -> kbal s l o -> kbal s l' o.
Proof.
  intros s l l' [s' c r|s' c|] M B; simpl in *; [| |exact I]; destruct B as [M1 F1]; (split; [|exact F1]);
    intro x; generalize (M x) (M1 x); mq.
Qed.

Lemma kbal_after : forall s s1 b l o,
  meq (cown s1) (b ++ cown s) -> frame_ok s s1 ->
  kbal s1 (b ++ l) o -> kbal s l o.
Proof.
  intros s s1 b l [s' c r|s' c|] M F B; simpl in *; [| |exact I]; destruct B as [M1 F1];
    (split; [|eapply frame_trans; eauto]); intro x; generalize (M x) (M1 x); mq.
Qed.

Lemma eerr_bal : forall s c fr, kbal s (egtoks fr) (eerr s c fr).
Proof.
  intros s c fr. unfold OomOwnZK.eerr. destruct (eunwind s fr) as [s'|] eqn:H; [|exact I].
  simpl. apply (eunwind_spec _ _ _ H).
Qed.

(** the recursors with the guard placement of the code *)
Lemma erec2_bal : forall p s r1 run2 fin,
  kbal s [] r1 ->
  (forall s1 c1, kbal s1 [] (run2 s1 c1)) ->
  (forall s2 c2 t e, kbal s2 (toke t ++ toke e) (fin s2 c2 t e)) ->
  kbal s [] (erec2 terms tid C p false r1 run2 fin).
Proof.
  intros p s r1 run2 fin B1 B2 Bf.
  assert (Hok : forall s1 c1 t, kbal s [] (EOk s1 c1 t) ->
            kbal s [] (match run2 s1 c1 with
                       | EStuck => EStuck
                       | EErr s2 c2 => eerr s2 c2 [(t, negb false)]
                       | EOk s2 c2 e => fin s2 c2 t e
                       end)).
  { intros s1 c1 t [M1 F1]. apply (kbal_after s s1 (toke t) []); [exact M1|exact F1|].
    specialize (B2 s1 c1). destruct (run2 s1 c1) as [s2 c2 e|s2 c2|]; [| |exact I].
    - destruct B2 as [M2 F2]. apply (kbal_after s1 s2 (toke e) (toke t ++ [])); [exact M2|exact F2|].
      eapply kbal_meq; [|apply Bf]. intro x. mq.
    - destruct B2 as [M2 F2]. simpl negb.
      pose proof (eerr_bal s2 c2 [(t, true)]) as Eb. cbn [egtoks] in Eb.
      apply (kbal_after s1 s2 [] (toke t ++ [])); [exact M2|exact F2|]. exact Eb. }
  destruct p; simpl.
  - unfold epar2. destruct r1 as [s1 c1 t|s1 c1|]; [apply Hok; exact B1| |exact I].
    destruct B1 as [M1 F1]. apply (kbal_after s s1 [] []); [exact M1|exact F1|].
    specialize (B2 s1 c1). destruct (run2 s1 c1) as [s2 c2 e|s2 c2|]; [| |exact I].
    + destruct B2 as [M2 F2]. simpl negb.
      pose proof (eerr_bal s2 c2 [(e, true)]) as Eb. cbn [egtoks] in Eb.
      apply (kbal_after s1 s2 (toke e) []); [exact M2|exact F2|].
      eapply kbal_meq; [|exact Eb]. intro x. mq.
    + exact B2.
  - unfold eseq2. destruct r1 as [s1 c1 t|s1 c1|]; [apply Hok; exact B1| |exact I].
    exact B1.
Qed.

End Comb.
End Kind.

Section Proofs.
Variable terms : list (N * N).
Variable nl : nat.
Variable tid : nat.
Variable cap : nat.

Notation CInv := (CInv KBdd terms nl).
Notation frame_ok := (frame_ok KBdd terms nl).
Notation tokr := (tokr tid).
Notation o_clone := (o_clone terms tid).
Notation o_drop := (o_drop terms tid).
Notation o_goi := (o_goi terms nl tid cap).
Notation o_reduce := (o_reduce terms nl tid cap).
Notation unwind := (unwind terms tid).

Lemma tokr_RN : forall id, tokr (RN id) = [(tid, E (RN id))].
Proof. reflexivity. Qed.

Lemma o_drop_E : forall s r, o_drop s r = e_drop terms tid s (E r).
Proof. intros s [x|id]; reflexivity. Qed.

Lemma o_clone_E : forall s r, o_clone s r = e_clone KBdd terms tid s (E r).
Proof.
  intros s [x|id]; unfold OomOwn.o_clone, OomOwnZK.e_clone, Conc.edge_ok_b; simpl; rewrite andb_true_r;
    [|destruct (cfind (cn s) id)]; reflexivity.
Qed.

Definition gk (g : gres) : krres :=
  match g with GOk s r => KOk s (E r) | GErr s => KErr s | GStuck => KStuck end.

Lemma o_goi_E : forall s lvl t e, e_goi KBdd terms nl tid cap s lvl (E t) (E e) = gk (o_goi s lvl t e).
Proof.
  intros s lvl t e. unfold OomOwn.o_goi, OomOwnZK.e_goi. cbv zeta.
  destruct (node_pre_b KBdd terms nl (cn s) lvl [E t; E e]); [|reflexivity].
  destruct (take_toks tid [E t; E e] (cown s)) as [own1|]; [|reflexivity].
  destruct (find_shape (cn s) lvl [E t; E e]) as [id|]; [destruct (dec_ok_b (cn s) [E t; E e]); reflexivity|].
  destruct (Nat.ltb (cnode_count s) cap); [reflexivity|].
  destruct (dec_ok_b (cn s) [E t; E e]); reflexivity.
Qed.

Lemma o_clone_spec : forall s r s', o_clone s r = Some s' ->
  meq (cown s') (tokr r ++ cown s) /\ frame_ok s s'.
Proof. intros s r s' H. rewrite o_clone_E in H. exact (e_clone_spec KBdd terms nl tid s (E r) s' H). Qed.

Lemma o_drop_spec : forall s r s', o_drop s r = Some s' ->
  meq (tokr r ++ cown s') (cown s) /\ frame_ok s s'.
Proof. intros s r s' H. rewrite o_drop_E in H. exact (e_drop_spec KBdd terms nl tid s (E r) s' H). Qed.

Lemma o_goi_spec : forall s lvl t e,
  match o_goi s lvl t e with
  | GOk s' h => meq ((tokr t ++ tokr e) ++ cown s') (tokr h ++ cown s) /\ frame_ok s s'
  | GErr s' => meq ((tokr t ++ tokr e) ++ cown s') (cown s) /\ frame_ok s s'
  | GStuck => True
  end.
Proof.
  intros s lvl t e. pose proof (e_goi_spec KBdd terms nl tid cap s lvl (E t) (E e)) as G.
  rewrite o_goi_E in G. destruct (o_goi s lvl t e); exact G.
Qed.

Lemma o_reduce_spec : forall s lvl t e,
  match o_reduce s lvl t e with
  | GOk s' h => meq ((tokr t ++ tokr e) ++ cown s') (tokr h ++ cown s) /\ frame_ok s s'
  | GErr s' => meq ((tokr t ++ tokr e) ++ cown s') (cown s) /\ frame_ok s s'
  | GStuck => True
  end.
Proof.
  intros s lvl t e. unfold OomOwn.o_reduce. destruct (ref_eqb t e) eqn:Eq.
  - destruct (o_drop s e) as [s1|] eqn:Hd; [|exact I].
    destruct (o_drop_spec _ _ _ Hd) as [M Fr]. split; [|exact Fr].
    intro x. generalize (M x). mq.
  - apply o_goi_spec.
Qed.

(** the tokens the guards of a frame release *)
Fixpoint gtoks (fr : frame) : list (nat * edge) :=
  match fr with
  | [] => []
  | (r, true) :: rest => tokr r ++ gtoks rest
  | (_, false) :: rest => gtoks rest
  end.

Definition ef (fr : frame) : eframe := map (fun x => (E (fst x), snd x)) fr.

Lemma gtoks_E : forall fr, gtoks fr = egtoks tid (ef fr).
Proof.
  induction fr as [|[r [|]] fr IH]; simpl; [reflexivity | rewrite IH; reflexivity | exact IH].
Qed.

Lemma unwind_E : forall fr s, unwind s fr = eunwind terms tid s (ef fr).
Proof.
  induction fr as [|[r [|]] fr IH]; intros s; simpl; [reflexivity | | apply IH].
  rewrite o_drop_E. destruct (e_drop terms tid s (E r)); [apply IH | reflexivity].
Qed.

Lemma unwind_spec : forall fr s s', unwind s fr = Some s' ->
  meq (gtoks fr ++ cown s') (cown s) /\ frame_ok s s'.
Proof.
  intros fr s s' H. rewrite unwind_E in H. rewrite gtoks_E.
  exact (eunwind_spec KBdd terms nl tid _ _ _ H).
Qed.

(** ** balance of a computation that consumes the tokens [l] *)

Section Alg.
Variable gt : ref -> ref -> bool.
Variable C : Type.
Variable cget : C -> N -> list ref -> option ref.
Variable cadd : C -> N -> list ref -> ref -> C.
Variable par : nat -> bool.

Definition bal (s : cst) (l : list (nat * edge)) (o : ores C) : Prop :=
  match o with
  | OOk s' _ r => meq (l ++ cown s') (tokr r ++ cown s) /\ frame_ok s s'
  | OErr s' _ => meq (l ++ cown s') (cown s) /\ frame_ok s s'
  | OStuck => True
  end.

Notation err := (err terms tid C).
Notation clone_ret := (clone_ret terms tid C).
Notation finish := (finish terms nl tid cap C cadd).
Notation not_o := (not_o terms nl tid cap C cget cadd par guards_code).
Notation bin_o := (bin_o terms nl tid cap gt C cget cadd par guards_code).
Notation ite_o := (ite_o terms nl tid cap gt C cget cadd par guards_code).

Lemma err_bal : forall s c fr,
  match err s c fr with
  | OErr s' c' => c' = c /\ meq (gtoks fr ++ cown s') (cown s) /\ frame_ok s s'
  | OStuck => True
  | OOk _ _ _ => False
  end.
Proof.
  intros s c fr. unfold OomOwn.err. destruct (unwind s fr) as [s'|] eqn:H; [|exact I].
  destruct (unwind_spec _ _ _ H). auto.
Qed.

(** `Ok(manager.get_terminal(b).unwrap())`: terminals carry no token *)
Lemma term_ret_bal : forall s c b,
  bal s [] (match term_of (tsnap terms) b with Some t => OOk s c (RT t) | None => OStuck end).
Proof.
  intros s c b. destruct (term_of (tsnap terms) b); [|exact I]. split; [apply meq_refl | apply frame_refl].
Qed.

Lemma clone_ret_bal : forall s c h, bal s [] (clone_ret s c h).
Proof.
  intros s c h. unfold OomOwn.clone_ret. destruct (o_clone s h) as [s'|] eqn:H; [|exact I].
  simpl. apply (o_clone_spec _ _ _ H).
Qed.

Lemma finish_bal : forall lvl code args s2 c2 t e,
  bal s2 (tokr t ++ tokr e) (finish lvl code args s2 c2 t e).
Proof.
  intros lvl code args s2 c2 t e. unfold OomOwn.finish.
  pose proof (o_reduce_spec s2 lvl t e) as R.
  destruct (o_reduce s2 lvl t e) as [s3 h|s3|]; [| |exact I].
  - simpl. destruct R as [M Fr]. split; [|exact Fr].
    intro x. generalize (M x). mq.
  - pose proof (err_bal s3 c2 []) as Eb. destruct (err s3 c2 []) as [| s4 c4 |]; [destruct Eb| |exact I].
    destruct Eb as [_ [M4 F4]]. destruct R as [M Fr]. simpl.
    split; [|eapply frame_trans; eauto].
    intro x. generalize (M x) (M4 x). cbn [gtoks]. mq.
Qed.

Definition ek (o : ores C) : eres C :=
  match o with OOk s c r => EOk s c (E r) | OErr s c => EErr s c | OStuck => EStuck end.

Lemma bal_ek : forall s l o, bal s l o <-> kbal KBdd terms nl tid C s l (ek o).
Proof. intros s l [s' c r|s' c|]; apply iff_refl. Qed.

Lemma ek_err : forall s c fr, ek (err s c fr) = eerr terms tid C s c (ef fr).
Proof.
  intros s c fr. unfold OomOwn.err, OomOwnZK.eerr. rewrite unwind_E.
  destruct (eunwind terms tid s (ef fr)); reflexivity.
Qed.

(** [ek] yields untagged edges only *)
Definition efin2 (fin : cst -> C -> ref -> ref -> ores C) (s : cst) (c : C) (t e : edge) : eres C :=
  if etag t || etag e then EStuck else ek (fin s c (eref t) (eref e)).

Lemma ek_rec2 : forall p lt r1 run2 fin,
  ek (rec2 terms tid C p lt r1 run2 fin) =
  erec2 terms tid C p lt (ek r1) (fun s c => ek (run2 s c)) (efin2 fin).
Proof.
  intros p lt r1 run2 fin.
  destruct p; destruct r1 as [s1 c1 t|s1 c1|]; simpl; try reflexivity; try apply ek_err;
    destruct (run2 s1 c1) as [s2 c2 e|s2 c2|]; simpl; try reflexivity; apply ek_err.
Qed.

(** the recursors with the guard placement of the code *)
Lemma rec2_bal : forall p s r1 run2 fin,
  bal s [] r1 ->
  (forall s1 c1, bal s1 [] (run2 s1 c1)) ->
  (forall s2 c2 t e, bal s2 (tokr t ++ tokr e) (fin s2 c2 t e)) ->
  bal s [] (rec2 terms tid C p false r1 run2 fin).
Proof.
  intros p s r1 run2 fin B1 B2 Bf. apply bal_ek. rewrite ek_rec2. apply erec2_bal.
  - apply bal_ek. exact B1.
  - intros s1 c1. apply bal_ek. apply B2.
  - intros s2 c2 [t [|]] [e [|]]; try exact I. apply bal_ek. apply Bf.
Qed.

(** ** the three algorithms *)

Lemma not_o_bal : forall fuel s c f, bal s [] (not_o fuel s c f).
Proof.
  induction fuel as [|n IH]; intros s c f; simpl; [exact I|].
  destruct f as [x|id].
  - destruct (view (tsnap terms) (RT x)) as [[|b]|]; try exact I.
    apply term_ret_bal.
  - destruct (cfind (cn s) id) as [nd|]; [|exact I].
    destruct (cget c code_not [RN id]) as [h|]; [apply clone_ret_bal|].
    destruct (cch nd) as [|ft [|fe [|x r]]]; try exact I.
    apply rec2_bal; [apply IH | intros; apply IH | intros; apply finish_bal].
Qed.

Lemma bin_o_bal : forall fuel s c op f g, bal s [] (bin_o fuel s c op f g).
Proof.
  induction fuel as [|n IH]; intros s c op f g; [exact I|].
  cbn [OomOwn.bin_o].
  destruct (terminal_bin gt (tsnap terms) op f g) as [h|r|o a b|]; try exact I.
  - apply clone_ret_bal.
  - apply not_o_bal.
  - destruct (cget c (op_code o) [a; b]) as [h|]; [apply clone_ret_bal|].
    destruct (cinner s f) as [fnode|]; [|exact I].
    destruct (cinner s g) as [gnode|]; [|exact I].
    destruct (ccof2 f fnode _) as [[ft fe]|]; [|exact I].
    destruct (ccof2 g gnode _) as [[gt' ge]|]; [|exact I].
    apply rec2_bal; [apply IH | intros; apply IH | intros; apply finish_bal].
Qed.

Lemma ite_o_bal : forall fuel s c f g h, bal s [] (ite_o fuel s c f g h).
Proof.
  induction fuel as [|n IH]; intros s c f g h; [exact I|].
  cbn [OomOwn.ite_o].
  destruct (ref_eqb g h); [apply clone_ret_bal|].
  destruct (ref_eqb f g); [apply bin_o_bal|].
  destruct (ref_eqb f h); [apply bin_o_bal|].
  destruct (view (tsnap terms) f) as [[|b]|]; [| apply clone_ret_bal | exact I].
  destruct (view (tsnap terms) g) as [[|[|]]|]; destruct (view (tsnap terms) h) as [[|[|]]|];
    try exact I; try apply bin_o_bal; try apply not_o_bal; try apply clone_ret_bal.
  destruct (cget c code_ite [f; g; h]) as [r|]; [apply clone_ret_bal|].
  destruct (cinner s f) as [fnode|]; [|exact I].
  destruct (cinner s g) as [gnode|]; [|exact I].
  destruct (cinner s h) as [hnode|]; [|exact I].
  destruct (ccof2 f fnode _) as [[ft fe]|]; [|exact I].
  destruct (ccof2 g gnode _) as [[gt' ge]|]; [|exact I].
  destruct (ccof2 h hnode _) as [[ht he]|]; [|exact I].
  apply rec2_bal; [apply IH | intros; apply IH | intros; apply finish_bal].
Qed.

End Alg.
End Proofs.
