(** * C14x - balance, frame and exact counts for substitution and quantification
      (invariant-free part; continues Mgr/OomOwnProofs.v)

    [prepare_fill_o] (`substitute_prepare`), [subst_o] (`substitute`),
    [substitute_o] (`substitute_edge`) and [quant_o] (`quant`) of Mgr/OomOwnQ.v with
    the guard placement of the code: for every outcome the tokens owned afterwards are
    the caller's (plus the result / the vector on success), old nodes are kept, [CInv]
    is preserved. *)

From Coq Require Import List NArith PArith Bool Arith Lia Permutation.
From OxiVerif Require Import DD.Table DD.TableProofs DD.Sem DD.Build DD.Apply DD.Quant
  Mgr.Conc Mgr.ConcBase Mgr.ConcProofs Mgr.OomOwn Mgr.OomOwnProofs Mgr.OomOwnQ.
Import ListNotations.

Section Proofs.
Variable terms : list (N * N).
Variable nl : nat.
Variable tid : nat.
Variable cap : nat.

Notation CInv := (CInv KBdd terms nl).
Notation tokr := (tokr tid).
Notation o_clone := (o_clone terms tid).
Notation o_goi := (o_goi terms nl tid cap).
Notation unwind := (unwind terms tid).
Notation gtoks := (gtoks tid).
Notation frame_ok := (frame_ok KBdd terms nl).

(** the tokens for a vector of owned edges *)
Definition toks (v : list ref) : list (nat * edge) := flat_map tokr v.

Lemma gtoks_vframe : forall v, gtoks (vframe true v) = toks v.
Proof. induction v as [|a r IH]; simpl; [reflexivity|]. rewrite IH. reflexivity. Qed.

Lemma gtoks_vframe_false : forall v, gtoks (vframe false v) = [].
Proof. induction v as [|a r IH]; simpl; auto. Qed.

Lemma toks_app : forall a b, toks (a ++ b) = toks a ++ toks b.
Proof. intros a b. unfold toks. apply flat_map_app. Qed.

Lemma toks_rev : forall l, meq (toks (rev l)) (toks l).
Proof.
  induction l as [|a r IH]; [apply meq_refl|]. simpl rev. rewrite toks_app. simpl.
  rewrite app_nil_r. intro x. generalize (IH x). mq.
Qed.

Definition vbal (s : cst) (acc : list ref) (o : vres) : Prop :=
  match o with
  | VOk s' v => meq (toks acc ++ cown s') (toks v ++ cown s) /\ frame_ok s s'
  | VErr s' => meq (toks acc ++ cown s') (cown s) /\ frame_ok s s'
  | VStuck => True
  end.

Lemma prepare_fill_bal : forall slots s level acc,
  vbal s acc (prepare_fill_o terms nl tid cap false s slots level acc).
Proof.
  induction slots as [|[e|] rest IH]; intros s level acc; simpl.
  - split; [|apply frame_refl]. intro x. generalize (toks_rev acc x). mq.
  - destruct (o_clone s e) as [s1|] eqn:Hc; [|exact I].
    destruct (o_clone_spec terms nl tid _ _ _ Hc) as [M1 F1].
    specialize (IH s1 (S level) (e :: acc)).
    destruct (prepare_fill_o terms nl tid cap false s1 rest (S level) (e :: acc)) as [s' v|s'|]; [| |exact I];
      destruct IH as [M F]; (split; [|eapply frame_trans; eauto]);
      intro x; generalize (M x) (M1 x); simpl toks; mq.
  - destruct (term_of (tsnap terms) true) as [t1|]; [|exact I].
    destruct (term_of (tsnap terms) false) as [t0|]; [|exact I].
    pose proof (o_goi_spec terms nl tid cap s level (RT t1) (RT t0)) as G.
    destruct (o_goi s level (RT t1) (RT t0)) as [s1 r|s1|]; [| |exact I].
    + destruct G as [M1 F1]. specialize (IH s1 (S level) (r :: acc)).
      destruct (prepare_fill_o terms nl tid cap false s1 rest (S level) (r :: acc)) as [s' v|s'|]; [| |exact I];
        destruct IH as [M F]; (split; [|eapply frame_trans; eauto]);
        intro x; generalize (M x) (M1 x); simpl toks; mq.
    + destruct G as [M1 F1]. simpl negb.
      destruct (unwind s1 (vframe true (rev acc))) as [s2|] eqn:Hu; [|exact I].
      destruct (unwind_spec terms nl tid _ _ _ Hu) as [M2 F2]. rewrite gtoks_vframe in M2.
      split; [|eapply frame_trans; eauto].
      intro x. generalize (M1 x) (M2 x) (toks_rev acc x). mq.
Qed.

Section Alg.
Variable gt : ref -> ref -> bool.
Variable C : Type.
Variable cget : C -> N -> list ref -> option ref.
Variable cadd : C -> N -> list ref -> ref -> C.
Variable par : nat -> bool.

Notation bal := (bal terms nl tid C).
Notation err := (err terms tid C).
Notation with_guards := (with_guards terms tid C cadd).
Notation subst_o := (subst_o terms nl tid cap gt C cget cadd par guards_code).
Notation substitute_o := (substitute_o terms nl tid cap gt C cget cadd par guards_code).
Notation quant_o := (quant_o terms nl tid cap gt C cget cadd par guards_code).

Lemma with_guards_bal : forall code args s2 t e o, bal s2 [] o ->
  bal s2 (tokr t ++ tokr e) (with_guards code args t e o).
Proof.
  intros code args s2 t e [s3 c3 r|s3 c3|] B; [| |exact I]; destruct B as [M3 F3]; unfold OomOwnQ.with_guards.
  - destruct (unwind s3 [(e, true); (t, true)]) as [s4|] eqn:Hu; [|exact I].
    destruct (unwind_spec terms nl tid _ _ _ Hu) as [M4 F4].
    split; [|eapply frame_trans; eauto].
    intro x. generalize (M3 x) (M4 x). cbn [OomOwnProofs.gtoks]. mq.
  - pose proof (err_bal terms nl tid C s3 c3 [(e, true); (t, true)]) as Eb.
    destruct (err s3 c3 [(e, true); (t, true)]) as [|s4 c4|]; [destruct Eb| |exact I].
    destruct Eb as [_ [M4 F4]]. split; [|eapply frame_trans; eauto].
    intro x. generalize (M3 x) (M4 x). cbn [OomOwnProofs.gtoks]. mq.
Qed.

Lemma subst_o_bal : forall fuel s c f sv id, bal s [] (subst_o fuel s c f sv id).
Proof.
  induction fuel as [|n IH]; intros s c f sv id; [exact I|]. cbn [OomOwnQ.subst_o].
  destruct f as [x|fid]; [apply clone_ret_bal|].
  destruct (cfind (cn s) fid) as [fnode|]; [|exact I].
  destruct (nth_error sv (cl fnode)) as [rep|]; [|apply clone_ret_bal].
  destruct (cget c (code_subst id) [RN fid]) as [h|]; [apply clone_ret_bal|].
  destruct (cch fnode) as [|ft [|fe [|x r]]]; try exact I.
  apply rec2_bal; [apply IH | intros; apply IH |].
  intros s2 c2 t e. apply with_guards_bal. apply ite_o_bal.
Qed.

Lemma substitute_o_bal : forall fuel s c f slots id, bal s [] (substitute_o fuel s c f slots id).
Proof.
  intros fuel s c f slots id. unfold OomOwnQ.substitute_o.
  change (guards_code 0) with false.
  pose proof (prepare_fill_bal slots s 0 []) as P.
  destruct (prepare_fill_o terms nl tid cap false s slots 0 []) as [s1 sv|s1|]; [| |exact I].
  - destruct P as [M1 F1]. pose proof (subst_o_bal fuel s1 c f sv id) as B.
    destruct (subst_o fuel s1 c f sv id) as [s2 c2 r|s2 c2|]; [| |exact I].
    + destruct B as [M2 F2]. destruct (unwind s2 (vframe true sv)) as [s3|] eqn:Hu; [|exact I].
      destruct (unwind_spec terms nl tid _ _ _ Hu) as [M3 F3]. rewrite gtoks_vframe in M3. simpl.
      split; [|eapply frame_trans; [exact F1|]; eapply frame_trans; eauto].
      intro x. generalize (M1 x) (M2 x) (M3 x). simpl toks. mq.
    + destruct B as [M2 F2].
      pose proof (err_bal terms nl tid C s2 c2 (vframe true sv)) as Eb.
      destruct (err s2 c2 (vframe true sv)) as [|s3 c3|]; [destruct Eb| |exact I].
      destruct Eb as [_ [M3 F3]]. rewrite gtoks_vframe in M3. simpl.
      split; [|eapply frame_trans; [exact F1|]; eapply frame_trans; eauto].
      intro x. generalize (M1 x) (M2 x) (M3 x). simpl toks. mq.
  - destruct P as [M1 F1]. simpl. split; [|exact F1]. intro x. generalize (M1 x). simpl toks. mq.
Qed.

Lemma quant_o_bal : forall fuel s c q f vars, bal s [] (quant_o fuel s c q f vars).
Proof.
  induction fuel as [|n IH]; intros s c q f vars; [exact I|]. cbn [OomOwnQ.quant_o].
  destruct f as [x|fid].
  - destruct (negb (is_unique q) || match vars with RT _ => true | RN _ => false end);
      [apply clone_ret_bal|].
    apply term_ret_bal.
  - destruct (cfind (cn s) fid) as [fnode|]; [|exact I].
    destruct (if is_unique q then Some vars else cset_pop (S nl) s vars (cl fnode)) as [[x|vid]|];
      [apply clone_ret_bal| |exact I].
    destruct (cfind (cn s) vid) as [vnode|]; [|exact I].
    destruct (is_unique q && Nat.ltb (cl vnode) (cl fnode)).
    { apply term_ret_bal. }
    destruct (cget c (qcode q) [RN fid; RN vid]) as [h|]; [apply clone_ret_bal|].
    destruct (cch fnode) as [|ft [|fe [|x r]]]; try exact I.
    destruct (if Nat.eqb (cl vnode) (cl fnode)
              then match cch vnode with [vt; _] => Some (eref vt) | _ => None end
              else Some (RN vid)) as [vt|]; [|exact I].
    apply rec2_bal; [apply IH | intros; apply IH |].
    intros s2 c2 t e. destruct (Nat.eqb (cl fnode) (cl vnode)).
    + apply with_guards_bal. apply bin_o_bal.
    + apply finish_bal.
Qed.

End Alg.
End Proofs.
