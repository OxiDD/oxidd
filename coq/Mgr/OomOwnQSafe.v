(** * C14x - substitution and quantification never get stuck
      (continues Mgr/OomOwnSafe.v)

    Under [CInv], stored operands (replacement functions, variable set), a cache
    satisfying [COK] (any [lossy] implementation), Boolean terminals and enough fuel,
    [prepare_fill_o], [subst_o], [substitute_o] and [quant_o] of Mgr/OomOwnQ.v (guard
    placement of the code) return a result or out-of-memory: the guards that are alive
    across `apply_ite` / `apply_bin` and the vector guard of `substitute_prepare`
    always find their tokens and positive counts when they are dropped. *)

From Coq Require Import List NArith PArith Bool Arith Lia Permutation.
From OxiVerif Require Import DD.Table DD.TableProofs DD.Sem DD.Build DD.Apply DD.ApplyProofs DD.Quant
  Mgr.Conc Mgr.ConcBase Mgr.ConcProofs Mgr.ConcGcProofs
  Mgr.OomOwn Mgr.OomOwnProofs Mgr.OomOwnSafe Mgr.OomOwnQ Mgr.OomOwnQProofs.
Import ListNotations.

Lemma lvl_code_subst : forall id, lvl_code (code_subst id) = false.
Proof. intros id. unfold lvl_code, code_subst. apply N.ltb_ge. lia. Qed.

Lemma lvl_code_q : forall q, lvl_code (qcode q) = true.
Proof. destruct q; reflexivity. Qed.

Section Safe.
Variable terms : list (N * N).
Variable nl : nat.
Variable tid : nat.
Variable cap : nat.
Hypothesis BT : bterms_ok terms.

Notation CInv := (CInv KBdd terms nl).
Notation tokr := (tokr tid).
Notation toks := (toks tid).
Notation gtoks := (gtoks tid).
Notation o_goi := (o_goi terms nl tid cap).
Notation crlevel := (crlevel nl).
Notation tsnap := (tsnap terms).
Notation stored := (stored terms).
Notation minlvl := (minlvl nl).
Notation has2 := (has2 tid).

Lemma In_vframe : forall g v r b, In (r, b) (vframe g v) -> In r v.
Proof.
  intros g v r b H. apply in_map_iff in H. destruct H as [y [Ey Hy]]. inversion Ey; subst. exact Hy.
Qed.

Lemma term_of_distinct : forall t1 t0, term_of tsnap true = Some t1 -> term_of tsnap false = Some t0 ->
  ref_eqb (RT t1) (RT t0) = false.
Proof.
  intros t1 t0 H1 H0. unfold term_of in *. simpl in *.
  pose proof (proj2 (proj2 (proj2 BT)) t0 t1 H0 H1) as Ne.
  destruct (N.eqb_spec t1 t0); [congruence | reflexivity].
Qed.

(** ** substitute_prepare *)

Definition vsafe (o : vres) : Prop :=
  match o with
  | VOk s' v => forall x, In x v -> stored (cn s') x
  | VErr _ => True
  | VStuck => False
  end.

Lemma prepare_fill_safe : forall slots s level acc rest, CInv s ->
  (forall e, In (Some e) slots -> stored (cn s) e) -> level + length slots <= nl ->
  (forall x, In x acc -> stored (cn s) x) -> meq (cown s) (toks acc ++ rest) ->
  vsafe (prepare_fill_o terms nl tid cap false s slots level acc).
Proof.
  induction slots as [|[e|] slots IH]; intros s level acc rest H Ss Hl Sa M; simpl.
  - intros x Hx. apply Sa. apply in_rev. exact Hx.
  - destruct (o_clone_enabled terms tid s e (Ss e (or_introl eq_refl))) as [s1 Hc]. rewrite Hc.
    destruct (o_clone_spec terms nl tid _ _ _ Hc) as [M1 [X1 I1]].
    apply (IH s1 (S level) (e :: acc) rest (I1 H)).
    + intros e' He'. eapply ext_stored; [exact X1|]. apply Ss. right. exact He'.
    + simpl in Hl. lia.
    + intros x [<-|Hx]; eapply ext_stored; try exact X1; [apply Ss; left; reflexivity | apply Sa; exact Hx].
    + intro x. generalize (M x) (M1 x). simpl OomOwnQProofs.toks. mq.
  - destruct (term_of_total terms BT true) as [t1 T1]. destruct (term_of_total terms BT false) as [t0 T0].
    rewrite T1, T0. simpl in Hl.
    pose proof (o_goi_enabled terms nl tid cap s level (RT t1) (RT t0) H ltac:(lia)
                  (term_of_stored terms _ _ _ T1) (term_of_stored terms _ _ _ T0)
                  ltac:(simpl; lia) ltac:(simpl; lia) (term_of_distinct _ _ T1 T0)) as G.
    assert (H2 : has2 s (RT t1) (RT t0)) by (exists (cown s); apply meq_refl).
    specialize (G H2).
    pose proof (o_goi_spec terms nl tid cap s level (RT t1) (RT t0)) as Sp.
    destruct (o_goi s level (RT t1) (RT t0)) as [s1 r|s1|]; [| |destruct G].
    + destruct G as [id [nd [-> [F L]]]]. destruct Sp as [M1 [X1 I1]].
      apply (IH s1 (S level) (RN id :: acc) rest (I1 H)).
      * intros e' He'. eapply ext_stored; [exact X1|]. apply Ss. right. exact He'.
      * lia.
      * intros x [<-|Hx]; [apply stored_RN; eauto | eapply ext_stored; [exact X1 | apply Sa; exact Hx]].
      * intro x. generalize (M x) (M1 x). simpl OomOwnQProofs.toks. mq.
    + destruct Sp as [M1 [X1 I1]]. simpl negb.
      destruct (unwind_enabled terms nl tid (vframe true (rev acc)) s1 rest (I1 H)) as [s2 Hu].
      * intros r Hr. eapply ext_stored; [exact X1|]. apply Sa. apply in_rev. exact (In_vframe _ _ _ _ Hr).
      * rewrite gtoks_vframe. intro x. generalize (M x) (M1 x) (toks_rev tid acc x). mq.
      * rewrite Hu. exact I.
Qed.

Section Alg.
Variable gt : ref -> ref -> bool.
Variable C : Type.
Variable cget : C -> N -> list ref -> option ref.
Variable cadd : C -> N -> list ref -> ref -> C.
Variable par : nat -> bool.
Hypothesis Hlossy : lossy cget cadd.

Notation COK := (COK terms nl C cget).
Notation safe := (safe terms nl C cget).
Notation bal := (bal terms nl tid C).
Notation with_guards := (with_guards terms tid C cadd).
Notation subst_o := (subst_o terms nl tid cap gt C cget cadd par guards_code).
Notation substitute_o := (substitute_o terms nl tid cap gt C cget cadd par guards_code).
Notation quant_o := (quant_o terms nl tid cap gt C cget cadd par guards_code).

(** a fallible call made while the two guards of the recursor are alive *)
Lemma with_guards_safe : forall code args s2 t e o lb lb', CInv s2 -> bal s2 [] o -> safe lb' o ->
  stored (cn s2) t -> stored (cn s2) e -> has2 s2 t e ->
  (forall r, In r args -> stored (cn s2) r) ->
  (lvl_code code = true -> minlvl (cn s2) args <= lb') -> lb <= lb' ->
  safe lb (with_guards code args t e o).
Proof.
  intros code args s2 t e o lb lb' H B S St Se [rest0 M0] Sa La Hlb.
  destruct o as [s3 c3 r|s3 c3|]; [| |destruct S].
  - destruct B as [M3 [X3 I3]]. destruct S as [C3 [Sr Lr]]. pose proof (I3 H) as H3.
    unfold OomOwnQ.with_guards.
    destruct (unwind_enabled terms nl tid [(e, true); (t, true)] s3 (tokr r ++ rest0) H3) as [s4 Hu].
    + intros x [Ex|[Ex|[]]]; inversion Ex; subst; eapply ext_stored; eauto.
    + intro x. generalize (M0 x) (M3 x). cbn [OomOwnProofs.gtoks]. mq.
    + rewrite Hu. destruct (unwind_spec terms nl tid _ _ _ Hu) as [_ [X4 _]].
      apply (ret_safe terms nl C cget cadd Hlossy s3 s4 c3 code args r lb lb' X4 C3); auto.
      * eapply ext_stored; eauto.
      * rewrite (ext_crlevel terms nl s3 s4 r X4 Sr). exact Lr.
      * intros x Hx. eapply ext_stored; eauto.
      * intros Hl. rewrite (ext_minlvl terms nl s2 s3 args X3 Sa). exact (La Hl).
  - destruct B as [M3 [X3 I3]]. pose proof (I3 H) as H3. unfold OomOwnQ.with_guards.
    apply (err_safe terms nl tid C cget s3 c3 _ lb rest0 H3 S).
    + intros x [Ex|[Ex|[]]]; inversion Ex; subst; eapply ext_stored; eauto.
    + intro x. generalize (M0 x) (M3 x). cbn [OomOwnProofs.gtoks]. mq.
Qed.

(** ** substitute *)
Lemma subst_o_safe : forall fuel s c f sv id, CInv s -> COK (cn s) c -> stored (cn s) f ->
  (forall x, In x sv -> stored (cn s) x) -> nl < fuel + crlevel (cn s) f ->
  safe 0 (subst_o fuel s c f sv id).
Proof.
  induction fuel as [|n IH]; intros s c f sv id H Hc Sf Sv Hfuel.
  { pose proof (crlevel_le terms nl s f H). lia. }
  cbn [OomOwnQ.subst_o]. destruct f as [x|fid]; [apply clone_ret_safe; auto; lia|].
  destruct (proj1 (stored_RN _ _ _) Sf) as [fnode F]. rewrite F.
  destruct (nth_error sv (cl fnode)) as [rep|] eqn:Hn; [|apply clone_ret_safe; auto; lia].
  destruct (cget c (code_subst id) [RN fid]) as [h|] eqn:G.
  { destruct (Hc _ _ _ G) as [Sh _]. apply clone_ret_safe; auto. lia. }
  destruct (node_children terms nl s fid fnode H F) as [Hl [ft [fe [Ech [_ [_ [St [Se [Lt Le]]]]]]]]].
  rewrite Ech. simpl crlevel in Hfuel. rewrite F in Hfuel.
  apply (rec2_safe terms nl tid C cget (par n) s 0 0); [exact H | apply subst_o_bal | | |].
  - apply IH; auto. lia.
  - intros s1 c1 H1 X1 C1. split; [apply subst_o_bal|].
    pose proof (ext_crlevel terms nl _ _ _ X1 Se) as Le1.
    apply IH; auto; [eapply ext_stored; eauto | intros x Hx; eapply ext_stored; eauto | lia].
  - intros s2 c2 t e H2 X2 C2 St2 Se2 _ _ T2.
    assert (Srep : stored (cn s2) rep).
    { eapply ext_stored; [exact X2|]. apply Sv. eapply nth_error_In; eauto. }
    apply (with_guards_safe _ _ s2 t e _ 0 0); auto.
    + apply ite_o_bal.
    + apply (ite_o_safe terms nl tid cap BT gt C cget cadd par Hlossy); auto; lia.
    + intros r [<-|[]]. eapply ext_stored; eauto.
    + rewrite lvl_code_subst. discriminate.
Qed.

(** ** substitute_edge *)
Lemma substitute_o_safe : forall fuel s c f slots id, CInv s -> COK (cn s) c -> stored (cn s) f ->
  (forall e, In (Some e) slots -> stored (cn s) e) -> length slots <= nl -> S nl <= fuel ->
  safe 0 (substitute_o fuel s c f slots id).
Proof.
  intros fuel s c f slots id H Hc Sf Ss Hl Hfuel. unfold OomOwnQ.substitute_o.
  change (guards_code 0) with false.
  pose proof (prepare_fill_bal terms nl tid cap slots s 0 []) as P.
  pose proof (prepare_fill_safe slots s 0 [] (cown s) H Ss ltac:(simpl; lia)
                ltac:(intros x []) ltac:(apply meq_refl)) as V.
  destruct (prepare_fill_o terms nl tid cap false s slots 0 []) as [s1 sv|s1|]; [| |destruct V].
  - destruct P as [M1 [X1 I1]]. pose proof (I1 H) as H1.
    assert (C1 : COK (cn s1) c) by (eapply COK_ext; eauto).
    assert (Sf1 : stored (cn s1) f) by (eapply ext_stored; eauto).
    pose proof (subst_o_bal terms nl tid cap gt C cget cadd par fuel s1 c f sv id) as B.
    pose proof (subst_o_safe fuel s1 c f sv id H1 C1 Sf1 V ltac:(lia)) as S2.
    destruct (subst_o fuel s1 c f sv id) as [s2 c2 r|s2 c2|]; [| |destruct S2].
    + destruct B as [M2 [X2 I2]]. destruct S2 as [C2 [Sr _]]. pose proof (I2 H1) as H2.
      destruct (unwind_enabled terms nl tid (vframe true sv) s2 (tokr r ++ cown s) H2) as [s3 Hu].
      * intros x Hx. eapply ext_stored; [exact X2|]. apply V. exact (In_vframe _ _ _ _ Hx).
      * rewrite gtoks_vframe. intro x. generalize (M1 x) (M2 x). simpl OomOwnQProofs.toks. mq.
      * rewrite Hu. destruct (unwind_spec terms nl tid _ _ _ Hu) as [_ [X3 _]]. cbn [OomOwnSafe.safe].
        split; [eapply COK_ext; eauto|]. split; [eapply ext_stored; eauto | lia].
    + destruct B as [M2 [X2 I2]]. pose proof (I2 H1) as H2.
      apply (err_safe terms nl tid C cget s2 c2 _ 0 (cown s) H2 S2).
      * intros x Hx. eapply ext_stored; [exact X2|]. apply V. exact (In_vframe _ _ _ _ Hx).
      * rewrite gtoks_vframe. intro x. generalize (M1 x) (M2 x). simpl OomOwnQProofs.toks. mq.
  - destruct P as [_ [X1 _]]. cbn [OomOwnSafe.safe]. apply (COK_ext terms nl C cget _ _ _ X1 Hc).
Qed.

(** ** set_pop and quant *)
Lemma cset_pop_ok : forall fuel s set until, CInv s -> stored (cn s) set ->
  nl < fuel + crlevel (cn s) set ->
  exists r, cset_pop fuel s set until = Some r /\ stored (cn s) r /\
            match r with RN _ => until <= crlevel (cn s) r | RT _ => True end.
Proof.
  induction fuel as [|n IH]; intros s set until H St Hf.
  { pose proof (crlevel_le terms nl s set H). lia. }
  destruct set as [x|id]; [exists (RT x); simpl; auto|].
  pose proof St as St'. apply stored_RN in St'. destruct St' as [nd F].
  cbn [cset_pop]. rewrite F.
  assert (Lf : crlevel (cn s) (RN id) = cl nd) by (simpl; rewrite F; reflexivity).
  destruct (Nat.leb_spec until (cl nd)) as [Le|Gt].
  - exists (RN id). rewrite Lf. auto.
  - destruct (node_children terms nl s id nd H F) as [Hl [ft [fe [Ech [_ [_ [Sft [_ [Lt _]]]]]]]]].
    rewrite Ech. apply IH; auto. lia.
Qed.

Lemma quant_o_safe : forall fuel s c q f vars lb, CInv s -> COK (cn s) c ->
  stored (cn s) f -> stored (cn s) vars -> lb <= crlevel (cn s) f -> nl < fuel + lb ->
  safe lb (quant_o fuel s c q f vars).
Proof.
  induction fuel as [|n IH]; intros s c q f vars lb H Hc Sf Sv Lf Hfuel;
    (assert (Ln : lb <= nl) by (pose proof (crlevel_le terms nl s f H); lia)); [lia|].
  cbn [OomOwnQ.quant_o]. destruct f as [x|fid].
  - destruct (negb (is_unique q) || match vars with RT _ => true | RN _ => false end).
    + apply clone_ret_safe; auto.
    + apply term_ret_safe; assumption.
  - destruct (proj1 (stored_RN _ _ _) Sf) as [fnode F]. rewrite F.
    assert (Ef : crlevel (cn s) (RN fid) = cl fnode) by (simpl; rewrite F; reflexivity).
    pose proof (stored_level_lt KBdd terms nl s fid fnode H F) as Hlf.
    assert (Hv : exists r, (if is_unique q then Some vars else cset_pop (S nl) s vars (cl fnode)) = Some r /\
                           stored (cn s) r /\
                           (is_unique q = false -> match r with RN _ => cl fnode <= crlevel (cn s) r | RT _ => True end)).
    { destruct (is_unique q).
      - exists vars. split; [reflexivity|]. split; [exact Sv | discriminate].
      - destruct (cset_pop_ok (S nl) s vars (cl fnode) H Sv ltac:(lia)) as [r [E [Sr Lr]]].
        exists r. auto. }
    destruct Hv as [vars' [Ev [Sv' Lv']]]. rewrite Ev.
    destruct vars' as [x|vid]; [apply clone_ret_safe; auto|].
    destruct (proj1 (stored_RN _ _ _) Sv') as [vnode Fv]. rewrite Fv.
    assert (Ev' : crlevel (cn s) (RN vid) = cl vnode) by (simpl; rewrite Fv; reflexivity).
    rewrite Ev' in Lv'.
    destruct (is_unique q && Nat.ltb (cl vnode) (cl fnode)) eqn:Eu.
    { apply term_ret_safe; assumption. }
    assert (Lfv : cl fnode <= cl vnode).
    { destruct (is_unique q); [|auto]. simpl in Eu. apply Nat.ltb_ge in Eu. exact Eu. }
    assert (Sa : forall r, In r [RN fid; RN vid] -> stored (cn s) r) by (intros r [<-|[<-|[]]]; assumption).
    assert (Hm : minlvl (cn s) [RN fid; RN vid] <= cl fnode).
    { rewrite <- Ef. apply minlvl_le_In. left. reflexivity. }
    destruct (cget c (qcode q) [RN fid; RN vid]) as [h|] eqn:G.
    { apply (cache_hit_safe terms nl tid C cget s c _ _ h lb Hc G (lvl_code_q q) Ln).
      intros r [<-|[<-|[]]]; lia. }
    destruct (node_children terms nl s fid fnode H F) as [_ [ft [fe [Ech [_ [_ [St [Se [Lt Le]]]]]]]]].
    rewrite Ech.
    assert (Hvt : exists vt, (if Nat.eqb (cl vnode) (cl fnode)
                              then match cch vnode with [vt; _] => Some (eref vt) | _ => None end
                              else Some (RN vid)) = Some vt /\ stored (cn s) vt).
    { destruct (Nat.eqb (cl vnode) (cl fnode)); [|eauto].
      destruct (node_children terms nl s vid vnode H Fv) as [_ [v1 [v2 [Ev1 [_ [_ [S1 _]]]]]]].
      rewrite Ev1. eauto. }
    destruct Hvt as [vt [Evt Svt]]. rewrite Evt.
    apply (rec2_safe terms nl tid C cget (par n) s lb (S (cl fnode))); [exact H | apply quant_o_bal | | |].
    + apply IH; auto. lia.
    + intros s1 c1 H1 X1 C1. split; [apply quant_o_bal|].
      apply IH; auto; try (eapply ext_stored; eauto); [|lia].
      rewrite (ext_crlevel terms nl s s1 _ X1 Se). exact Le.
    + intros s2 c2 t e H2 X2 C2 St2 Se2 Lt2 Le2 T2.
      assert (Sa2 : forall r, In r [RN fid; RN vid] -> stored (cn s2) r).
      { intros r Hr. eapply ext_stored; eauto. }
      assert (Hm2 : minlvl (cn s2) [RN fid; RN vid] <= cl fnode).
      { rewrite (ext_minlvl terms nl s s2 _ X2 Sa). exact Hm. }
      destruct (Nat.eqb (cl fnode) (cl vnode)).
      * apply (with_guards_safe _ _ s2 t e _ lb (cl fnode)); auto; [apply bin_o_bal | | lia].
        apply (bin_o_safe terms nl tid cap BT gt C cget cadd par Hlossy); auto; lia.
      * apply finish_safe; auto; lia.
Qed.

End Alg.
End Safe.
