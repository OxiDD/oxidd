(** * C14x - substitution and quantification: the statements, examples, refutation

    The four statements of Mgr/OomOwnThms.v (BALANCE, COUNTS, TOTAL, ROLLBACK) for
    [prepare_fill_o] (`substitute_prepare`), [substitute_o] (`substitute_edge` =
    `substitute_prepare` + `substitute` + drop of the vector guard) and [quant_o]
    (`quant`) of Mgr/OomOwnQ.v; the seeded slip of `substitute_prepare` (vector guard
    created only for the final `Ok`, [guards_late_vec]) is refuted on a concrete table
    with a level whose variable node does not exist yet. *)

From Coq Require Import List NArith PArith Bool Arith Lia Permutation.
From OxiVerif Require Import DD.Table DD.TableProofs DD.Sem DD.Build DD.Apply DD.ApplyProofs DD.Quant
  Mgr.Conc Mgr.ConcBase Mgr.ConcProofs Mgr.ConcSnap Mgr.ConcGc Mgr.ConcGcProofs
  Mgr.OomOwn Mgr.OomOwnProofs Mgr.OomOwnSafe Mgr.OomOwnGc Mgr.OomOwnThms
  Mgr.OomOwnQ Mgr.OomOwnQProofs Mgr.OomOwnQSafe Mgr.OomOwnExamples.
Import ListNotations.

Section Thms.
Variable terms : list (N * N).
Variable nl : nat.
Variable tid : nat.
Variable cap : nat.
Variable gt : ref -> ref -> bool.
Variable C : Type.
Variable cget : C -> N -> list ref -> option ref.
Variable cadd : C -> N -> list ref -> ref -> C.
Variable par : nat -> bool.

Notation CInv := (CInv KBdd terms nl).
Notation toks := (toks tid).
Notation own_post := (own_post terms nl tid C).
Notation own_total := (own_total terms nl C cget).
Notation rolled_back := (rolled_back terms nl).
Notation stored := (stored terms).
Notation COK := (COK terms nl C cget).
Notation prepare_fill_o := (prepare_fill_o terms nl tid cap false).
Notation substitute_o := (substitute_o terms nl tid cap gt C cget cadd par guards_code).
Notation quant_o := (quant_o terms nl tid cap gt C cget cadd par guards_code).

(** `substitute_prepare`: on success the thread additionally owns the vector *)
Theorem own_balance_prepare : forall s slots,
  match prepare_fill_o s slots 0 [] with
  | VOk s' v => Permutation (cown s') (toks v ++ cown s) /\ ext s s' /\ (CInv s -> CInv s')
  | VErr s' => Permutation (cown s') (cown s) /\ ext s s' /\ (CInv s -> CInv s')
  | VStuck => True
  end.
Proof.
  intros s slots. pose proof (prepare_fill_bal terms nl tid cap slots s 0 []) as P.
  destruct (OomOwnQ.prepare_fill_o terms nl tid cap false s slots 0 []) as [s' v|s'|]; [| |exact I];
    destruct P as [M [X I0]]; (split; [apply meq_perm; exact M | auto]).
Qed.

Theorem own_balance_substitute : forall fuel s c f slots id,
  own_post s (substitute_o fuel s c f slots id).
Proof. intros. apply bal_post. apply substitute_o_bal. Qed.

Theorem own_balance_quant : forall fuel s c q f vars, own_post s (quant_o fuel s c q f vars).
Proof. intros. apply bal_post. apply quant_o_bal. Qed.

Theorem own_counts_substitute : forall fuel s c f slots id s', CInv s -> terms_unique_b terms = true ->
  ores_st (substitute_o fuel s c f slots id) = Some s' ->
  CInv s' /\ WF (to_snap KBdd terms nl s') /\ rc_exact_b (to_snap KBdd terms nl s') [] = true.
Proof.
  intros fuel s c f slots id s' H Ht. apply (own_post_counts terms nl tid C s); auto.
  apply own_balance_substitute.
Qed.

Theorem own_counts_quant : forall fuel s c q f vars s', CInv s -> terms_unique_b terms = true ->
  ores_st (quant_o fuel s c q f vars) = Some s' ->
  CInv s' /\ WF (to_snap KBdd terms nl s') /\ rc_exact_b (to_snap KBdd terms nl s') [] = true.
Proof.
  intros fuel s c q f vars s' H Ht. apply (own_post_counts terms nl tid C s); auto.
  apply own_balance_quant.
Qed.

Theorem own_err_collect_substitute : forall fuel s c f slots id s' c', CInv s ->
  substitute_o fuel s c f slots id = OErr s' c' -> rolled_back s s'.
Proof.
  intros fuel s c f slots id s' c' H E. apply (own_post_rollback terms nl tid C s s' c' H).
  rewrite <- E. apply own_balance_substitute.
Qed.

Theorem own_err_collect_quant : forall fuel s c q f vars s' c', CInv s ->
  quant_o fuel s c q f vars = OErr s' c' -> rolled_back s s'.
Proof.
  intros fuel s c q f vars s' c' H E. apply (own_post_rollback terms nl tid C s s' c' H).
  rewrite <- E. apply own_balance_quant.
Qed.

Section Total.
Hypothesis BT : bterms_ok terms.
Hypothesis Hlossy : lossy cget cadd.

Theorem own_total_substitute : forall fuel s c f slots id, CInv s -> COK (cn s) c ->
  stored (cn s) f -> (forall e, In (Some e) slots -> stored (cn s) e) -> length slots <= nl ->
  S nl <= fuel -> own_total (substitute_o fuel s c f slots id).
Proof.
  intros fuel s c f slots id H Hc Sf Ss Hl Hf. eapply safe_total.
  apply (substitute_o_safe terms nl tid cap BT gt C cget cadd par Hlossy); auto.
Qed.

Theorem own_total_quant : forall fuel s c q f vars, CInv s -> COK (cn s) c ->
  stored (cn s) f -> stored (cn s) vars -> S nl <= fuel -> own_total (quant_o fuel s c q f vars).
Proof.
  intros fuel s c q f vars H Hc Sf Sv Hf. apply (safe_total terms nl C cget 0).
  apply (quant_o_safe terms nl tid cap BT gt C cget cadd par Hlossy); auto; lia.
Qed.
End Total.

End Thms.

(** ** examples and the refutation *)

(** x0 and x2 exist, the variable node of level 1 does not *)
Definition ex2o : cst := mkCst
  [(2%positive, mkC 0 [T1; T0] 1); (1%positive, mkC 2 [T1; T0] 1)]
  [(0, E (RN 2)); (0, E (RN 1))].

Example ex2o_inv : CInv KBdd ex_terms 3 ex2o.
Proof. apply cinv_b_spec. vm_compute. reflexivity. Qed.

(** x0[x0 := x2] with the levels 0..1 prepared (level 1 is not in the substitution:
    its variable node has to be created): with 2 slots `substitute_prepare` fails at
    level 1 after having cloned x2 for level 0; with 3 slots the result is x2 *)
Example ex2o_substitute : forall p,
  map (fun cap => oout (substitute_on ex_terms 3 0 cap p guards_code ex2o (RN 2) [Some (RN 1); None])) [2; 3] =
  [(1, Some 2, Some 2, None, Some true); (0, Some 3, Some 3, Some (RN 1), Some true)].
Proof. intros [|]; vm_compute; reflexivity. Qed.

Example ex3o_quant :
  map (fun cap => oout (quant_on ex_terms 3 0 cap false guards_code ex3o QUnique (RN 6) (RN 3))) [6; 7; 8] =
  [(1, Some 6, Some 5, None, Some true); (1, Some 7, Some 5, None, Some true);
   (0, Some 8, Some 6, Some (RN 8), Some true)] /\
  map (fun cap => oout (quant_on ex_terms 3 0 cap true guards_code ex3o QExists (RN 6) (RN 2))) [6; 7] =
  [(1, Some 6, Some 5, None, Some true); (0, Some 7, Some 6, Some (RN 7), Some true)] /\
  map (fun cap => oout (substitute_on ex_terms 3 0 cap true guards_code ex3o (RN 5)
                          [Some (RN 1); Some (RN 3); Some (RN 2)])) [6; 7] =
  [(1, Some 6, Some 5, None, Some true); (0, Some 7, Some 6, Some (RN 5), Some true)].
Proof. repeat split; vm_compute; reflexivity. Qed.

(** the seeded slip of `substitute_prepare`: the cloned replacement edge is leaked -
    one token more than before, and after the collection the count of x2 is 2
    instead of 1 (ROLLBACK's entry-by-entry equality is false) *)
Theorem own_balance_late_vec_refuted : forall p,
  (match substitute_on ex_terms 3 0 2 p guards_late_vec ex2o (RN 2) [Some (RN 1); None] with
   | OErr s' _ =>
       ~ Permutation (cown s') (cown ex2o) /\
       length (cown s') = S (length (cown ex2o)) /\
       option_map crc (cfind (cn (collect KBdd ex_terms 3 s')) 1%positive) = Some 2%N /\
       option_map crc (cfind (cn (collect KBdd ex_terms 3 ex2o)) 1%positive) = Some 1%N
   | _ => False
   end) /\
  own_post ex_terms 3 0 unit ex2o
    (substitute_on ex_terms 3 0 2 p guards_code ex2o (RN 2) [Some (RN 1); None]) /\
  ores_code (substitute_on ex_terms 3 0 2 p guards_code ex2o (RN 2) [Some (RN 1); None]) = 1.
Proof.
  intros p. split; [|split; [apply own_balance_substitute | destruct p; vm_compute; reflexivity]].
  destruct p; vm_compute;
    (split; [intro P; apply Permutation_length in P; discriminate | repeat split]).
Qed.

(** instance of TOTAL for the sparse substitution *)
Example ex2o_total : forall cap par fuel, S 3 <= fuel ->
  own_total ex_terms 3 acache ac_get
    (substitute_o ex_terms 3 0 cap gt_no acache ac_get ac_add par guards_code fuel ex2o []
       (RN 2) [Some (RN 1); None] 0%N).
Proof.
  intros cap par fuel Hf.
  apply (own_total_substitute ex_terms 3 0 cap gt_no acache ac_get ac_add par (proj1 ex_terms_ok) ac_lossy);
    [exact ex2o_inv | apply (proj1 (ex_cache_ok _)) | reflexivity | | simpl; lia | exact Hf].
  intros e [Ee|[Ee|[]]]; inversion Ee; subst. reflexivity.
Qed.

Example ex_subst_quant :
  CInv KBdd ex_terms 3 ex2o /\
  (forall p, map (fun cap => oout (substitute_on ex_terms 3 0 cap p guards_code ex2o (RN 2) [Some (RN 1); None])) [2; 3] =
     [(1, Some 2, Some 2, None, Some true); (0, Some 3, Some 3, Some (RN 1), Some true)]) /\
  map (fun cap => oout (quant_on ex_terms 3 0 cap false guards_code ex3o QUnique (RN 6) (RN 3))) [6; 7; 8] =
  [(1, Some 6, Some 5, None, Some true); (1, Some 7, Some 5, None, Some true);
   (0, Some 8, Some 6, Some (RN 8), Some true)].
Proof. exact (conj ex2o_inv (conj ex2o_substitute (proj1 ex3o_quant))). Qed.
