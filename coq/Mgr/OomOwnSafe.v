(** * C14x - the ownership model never gets stuck: no double release, no count
      underflow, no violated precondition of get_or_insert, on any path

    Under the invariant [CInv] of Mgr/ConcProofs.v (exact counts), operands that are
    stored, a cache whose entries refer to stored nodes at plausible levels ([COK];
    any [lossy] implementation), Boolean terminals ([bterms_ok]) and fuel >= number
    of levels + 1, the algorithms of Mgr/OomOwn.v (guard placement of the code)
    return [OOk] or [OErr], never [OStuck]: every [o_drop] finds a token of the
    operation and a positive count, every [get_or_insert] receives two owned
    edges to stored nodes below its level, every `unwrap` succeeds.  For every
    capacity, recursor, cache.  The result of [OOk] is stored, its level is at
    least the top-most operand level, the cache invariant is maintained for both
    outcomes. *)

From Coq Require Import List NArith PArith Bool Arith Lia Permutation.
From OxiVerif Require Import DD.Table DD.TableProofs DD.Sem DD.Build DD.Apply DD.ApplyProofs
  Mgr.Conc Mgr.ConcBase Mgr.ConcProofs Mgr.ConcGcProofs Mgr.OomOwn Mgr.OomOwnProofs.
Import ListNotations.

Arguments N.add : simpl never.
Arguments N.sub : simpl never.
Arguments N.mul : simpl never.

(** the static terminal table is that of a BDD manager: values 0/1, both present *)
Definition bterms_ok (terms : list (N * N)) : Prop :=
  (forall x v, assoc_N terms x = Some v -> v = 0%N \/ v = 1%N) /\
  (exists t, rassoc_N terms 0%N = Some t) /\ (exists t, rassoc_N terms 1%N = Some t) /\
  (forall t0 t1, rassoc_N terms 0%N = Some t0 -> rassoc_N terms 1%N = Some t1 -> t0 <> t1).

Lemma In_assoc_some : forall (l : list (N * N)) t v, In (t, v) l -> exists v', assoc_N l t = Some v'.
Proof.
  induction l as [|[a b] r IH]; intros t v Hin; [destruct Hin|]. simpl.
  destruct (N.eqb_spec a t) as [->|Hne]; [eauto|]. destruct Hin as [Hin|Hin]; [|eapply IH; eauto].
  inversion Hin; subst. congruence.
Qed.

(** ** [terminal_bin] case by case, syntactically *)

Definition tb_ok (s : snap) (f g : ref) (vf vg : nview) (r : tb_res) : Prop :=
  match r with
  | TFail => term_of s true = None \/ term_of s false = None
  | TDone h => h = f \/ h = g \/ (exists b t, term_of s b = Some t /\ h = RT t)
  | TNot r => r = f \/ r = g
  | TBin o a b => vf = VI /\ vg = VI /\ ((a = f /\ b = g) \/ (a = g /\ b = f))
  end.

Lemma get_term_ok : forall s f g vf vg b, tb_ok s f g vf vg (get_term s b).
Proof.
  intros s f g vf vg b. unfold get_term. destruct (term_of s b) as [t|] eqn:E; simpl.
  - right; right; eauto.
  - destruct b; auto.
Qed.

Lemma tb_facts : forall gt s op f g vf vg, tb_ok s f g vf vg (tb gt s op f g vf vg).
Proof.
  intros gt s op f g vf vg.
  destruct op; unfold tb; (destruct (ref_eqb f g); [first [apply get_term_ok | simpl; auto]|]);
    destruct vf as [|[|]]; destruct vg as [|[|]]; try apply get_term_ok;
    try destruct (gt f g); simpl; auto 6.
Qed.

Lemma terminal_bin_facts : forall gt s op f g,
  match terminal_bin gt s op f g with
  | TFail => view s f = None \/ view s g = None \/ term_of s true = None \/ term_of s false = None
  | TDone h => h = f \/ h = g \/ (exists b t, term_of s b = Some t /\ h = RT t)
  | TNot r => r = f \/ r = g
  | TBin o a b => view s f = Some VI /\ view s g = Some VI /\
                  ((a = f /\ b = g) \/ (a = g /\ b = f))
  end.
Proof.
  intros gt s op f g. unfold terminal_bin.
  destruct (view s f) as [vf|]; [|auto]. destruct (view s g) as [vg|]; [|auto].
  pose proof (tb_facts gt s op f g vf vg) as T.
  destruct (tb gt s op f g vf vg); simpl in T; [exact T | exact T | | auto].
  destruct T as [-> [-> T]]. auto.
Qed.

(** operator codes whose result is not above the top-most operand: all but
    (Substitute, id) = [39 + id] (DD/Quant.v) *)
Definition lvl_code (code : N) : bool := N.ltb code 39.

Lemma lvl_code_op : forall o, lvl_code (op_code o) = true.
Proof. destruct o; reflexivity. Qed.

Section Safe.
Variable terms : list (N * N).
Variable nl : nat.
Variable tid : nat.
Variable cap : nat.
Hypothesis BT : bterms_ok terms.

Notation CInv := (CInv KBdd terms nl).
Notation tokr := (tokr tid).
Notation o_clone := (o_clone terms tid).
Notation o_drop := (o_drop terms tid).
Notation o_goi := (o_goi terms nl tid cap).
Notation o_reduce := (o_reduce terms nl tid cap).
Notation unwind := (unwind terms tid).
Notation crlevel := (crlevel nl).
Notation tsnap := (tsnap terms).

Definition stored (t : ctable) (r : ref) : Prop := cref_ok_b terms t r = true.

(** top-most level among [args] (terminals: [nl]) *)
Definition minlvl (t : ctable) (args : list ref) : nat :=
  fold_right (fun r m => Nat.min (crlevel t r) m) nl args.

Lemma stored_RN : forall t id, stored t (RN id) <-> exists nd, cfind t id = Some nd.
Proof.
  intros t id. unfold stored. simpl. destruct (cfind t id) as [nd|]; split; intros H.
  - exists nd. reflexivity.
  - reflexivity.
  - discriminate.
  - destruct H as [nd H]. discriminate.
Qed.

Lemma ext_stored : forall s s' r, ext s s' -> stored (cn s) r -> stored (cn s') r.
Proof.
  intros s s' [x|id] X H; [exact H|]. apply stored_RN in H. destruct H as [nd F].
  destruct (X id nd F) as [nd' [F' _]]. apply stored_RN. eauto.
Qed.

Lemma ext_crlevel : forall s s' r, ext s s' -> stored (cn s) r ->
  crlevel (cn s') r = crlevel (cn s) r.
Proof.
  intros s s' [x|id] X H; [reflexivity|]. apply stored_RN in H. destruct H as [nd F].
  destruct (X id nd F) as [nd' [F' [L _]]]. simpl. rewrite F, F'. exact L.
Qed.

Lemma ext_minlvl : forall s s' args, ext s s' -> (forall r, In r args -> stored (cn s) r) ->
  minlvl (cn s') args = minlvl (cn s) args.
Proof.
  intros s s' args X. induction args as [|a r IH]; intros H; [reflexivity|]. simpl.
  rewrite (ext_crlevel s s' a X (H a (or_introl eq_refl))), IH; [reflexivity|].
  intros x Hx. apply H. right. exact Hx.
Qed.

Lemma crlevel_le : forall s r, CInv s -> crlevel (cn s) r <= nl.
Proof.
  intros s [x|id] H; simpl; [lia|]. destruct (cfind (cn s) id) as [nd|] eqn:F; [|lia].
  pose proof (stored_level_lt KBdd terms nl s id nd H F). lia.
Qed.

Lemma minlvl_le_nl : forall t args, minlvl t args <= nl.
Proof. intros t args. induction args as [|a r IH]; simpl; lia. Qed.

Lemma minlvl_le_In : forall t args r, In r args -> minlvl t args <= crlevel t r.
Proof.
  intros t args. induction args as [|a l IH]; intros r Hin; [destruct Hin|].
  destruct Hin as [<-|Hin]; simpl; [lia|]. specialize (IH r Hin). lia.
Qed.

Lemma minlvl_ge : forall t args m, m <= nl -> (forall r, In r args -> m <= crlevel t r) ->
  m <= minlvl t args.
Proof.
  intros t args m Hm. induction args as [|a l IH]; intros H; simpl; [exact Hm|].
  apply Nat.min_glb; [apply H; left; reflexivity | apply IH; intros r Hr; apply H; right; exact Hr].
Qed.

(** ** terminals *)

Lemma view_stored : forall t r, stored t r ->
  match r with
  | RN _ => view tsnap r = Some VI
  | RT _ => exists b, view tsnap r = Some (VT b)
  end.
Proof.
  intros t [x|id] H; [|reflexivity]. unfold stored in H. simpl in H. unfold view, term_val. simpl.
  destruct (assoc_N terms x) as [v|] eqn:A; [|discriminate].
  destruct (proj1 BT x v A) as [-> | ->]; eauto.
Qed.

Lemma view_VI_RN : forall r, view tsnap r = Some VI -> exists id, r = RN id.
Proof.
  intros [x|id] H; [|eauto]. unfold view in H. destruct (term_val tsnap x) as [[|[| |]]|]; discriminate.
Qed.

Lemma view_VT_RT : forall r b, view tsnap r = Some (VT b) -> exists x, r = RT x.
Proof. intros [x|id] b H; [eauto | discriminate]. Qed.

Lemma term_of_total : forall b, exists t, term_of tsnap b = Some t.
Proof. intros [|]; unfold term_of; simpl; [apply (proj1 (proj2 (proj2 BT))) | apply (proj1 (proj2 BT))]. Qed.

Lemma term_of_stored : forall tb b t, term_of tsnap b = Some t -> stored tb (RT t).
Proof.
  intros tb b t H. unfold term_of in H. simpl in H. apply rassoc_N_In in H.
  destruct (In_assoc_some _ _ _ H) as [v' A]. unfold stored. simpl. rewrite A. reflexivity.
Qed.

(** ** enabledness of the primitives *)

Lemma o_clone_enabled : forall s r, stored (cn s) r -> exists s', o_clone s r = Some s'.
Proof.
  intros s [x|id] H; unfold OomOwn.o_clone.
  - unfold stored in H. rewrite H. eauto.
  - apply stored_RN in H. destruct H as [nd F]. rewrite F. eauto.
Qed.

Lemma o_drop_enabled : forall s r, CInv s -> stored (cn s) r ->
  (forall id, r = RN id -> In (tid, E r) (cown s)) -> exists s', o_drop s r = Some s'.
Proof.
  intros s [x|id] H St Hin; unfold OomOwn.o_drop.
  - unfold stored in St. rewrite St. eauto.
  - specialize (Hin id eq_refl).
    destruct (owned_live KBdd terms nl s (tid, E (RN id)) id H Hin eq_refl) as [nd [F Hnz]].
    rewrite F. destruct (N.eqb_spec (crc nd) 0) as [Z|_]; [contradiction|].
    destruct (In_take_tok _ _ Hin) as [own' Ht]. rewrite Ht. eauto.
Qed.

(** the operation owns an edge to [t] and (another) one to [e] *)
Definition has2 (s : cst) (t e : ref) : Prop :=
  exists rest, meq (cown s) (tokr t ++ tokr e ++ rest).

Lemma tok_in : forall l r rest id, meq l (tokr r ++ rest) -> r = RN id -> In (tid, E r) l.
Proof.
  intros l r rest id M ->. apply (count_occ_In tok_dec). rewrite (M (tid, E (RN id))).
  rewrite count_occ_app. cbn [OomOwn.tokr]. rewrite (count_occ_cons_eq tok_dec _ eq_refl). lia.
Qed.

Lemma take_toks_enabled : forall own t e, (exists rest, meq own (tokr t ++ tokr e ++ rest)) ->
  exists own1, take_toks tid [E t; E e] own = Some own1.
Proof.
  intros own t e [rest M]. simpl. destruct t as [x|i]; destruct e as [y|j]; simpl in *.
  - eauto.
  - destruct (In_take_tok (tid, E (RN j)) own) as [o1 H1]; [|rewrite H1; eauto].
    apply (tok_in own (RN j) rest j); [exact M | reflexivity].
  - destruct (In_take_tok (tid, E (RN i)) own) as [o1 H1]; [|rewrite H1; eauto].
    apply (tok_in own (RN i) rest i); [exact M | reflexivity].
  - destruct (In_take_tok (tid, E (RN i)) own) as [o1 H1].
    { apply (tok_in own (RN i) ((tid, E (RN j)) :: rest) i); [exact M | reflexivity]. }
    rewrite H1. pose proof (take_tok_meq _ _ _ H1) as M1.
    destruct (In_take_tok (tid, E (RN j)) o1) as [o2 H2]; [|rewrite H2; eauto].
    apply (count_occ_In tok_dec).
    generalize (M (tid, E (RN j))) (M1 (tid, E (RN j))).
    repeat rewrite count_occ_app. split_cons.
    rewrite (count_occ_cons_eq tok_dec [] (eq_refl (tid, E (RN j)))).
    intros; lia.
Qed.

(** dropping the guards of a frame whose guarded edges are owned and stored *)
Lemma unwind_enabled : forall fr s rest, CInv s ->
  (forall r, In (r, true) fr -> stored (cn s) r) ->
  meq (cown s) (gtoks tid fr ++ rest) -> exists s', unwind s fr = Some s'.
Proof.
  induction fr as [|[r g] fr IH]; intros s rest H St M; simpl; [eauto|].
  destruct g.
  - destruct (o_drop_enabled s r H (St r (or_introl eq_refl))) as [s1 Hd].
    { intros id Er. apply (tok_in _ r (gtoks tid fr ++ rest) id); [|exact Er].
      intro x. generalize (M x). cbn [gtoks]. mq. }
    rewrite Hd. destruct (o_drop_spec terms nl tid _ _ _ Hd) as [M1 [X1 I1]].
    apply (IH s1 rest (I1 H)).
    + intros r' Hr'. eapply ext_stored; [exact X1|]. apply St. right. exact Hr'.
    + intro x. generalize (M x) (M1 x). cbn [gtoks]. mq.
  - apply (IH s rest H); [|exact M]. intros r' Hr'. apply St. right. exact Hr'.
Qed.

Lemma pre_ok : forall tb lvl t e, lvl < nl -> stored tb t -> stored tb e ->
  lvl < crlevel tb t -> lvl < crlevel tb e -> ref_eqb t e = false ->
  node_pre_b KBdd terms nl tb lvl [E t; E e] = true.
Proof.
  intros tb lvl t e Hl St Se Lt Le Ne. unfold node_pre_b. simpl.
  unfold stored in St, Se. rewrite St, Se.
  rewrite (proj2 (Nat.ltb_lt _ _) Hl), (proj2 (Nat.ltb_lt _ _) Lt), (proj2 (Nat.ltb_lt _ _) Le).
  unfold edge_eqb. simpl. rewrite Ne. reflexivity.
Qed.

Lemma o_goi_enabled : forall s lvl t e, CInv s -> lvl < nl ->
  stored (cn s) t -> stored (cn s) e -> lvl < crlevel (cn s) t -> lvl < crlevel (cn s) e ->
  ref_eqb t e = false -> has2 s t e ->
  match o_goi s lvl t e with
  | GOk s' h => exists id nd, h = RN id /\ cfind (cn s') id = Some nd /\ cl nd = lvl
  | GErr _ => True
  | GStuck => False
  end.
Proof.
  intros s lvl t e H Hl St Se Lt Le Ne H2. unfold OomOwn.o_goi.
  pose proof (pre_ok (cn s) lvl t e Hl St Se Lt Le Ne) as Hpre. rewrite Hpre.
  destruct (take_toks_enabled (cown s) t e H2) as [own1 Ht]. rewrite Ht.
  pose proof (goi_dec_ok KBdd terms nl s tid lvl _ own1 H Hpre Ht) as Hd.
  destruct (find_shape (cn s) lvl [E t; E e]) as [id|] eqn:Hf.
  - rewrite Hd.
    destruct (find_shape_Some _ _ _ id (ti_nodup _ _ _ _ (ci_tbl _ _ _ s H)) Hf) as [nd0 [F0 [L0 _]]].
    exists id. eexists. split; [reflexivity|]. cbn [cn]. unfold rc_inc.
    rewrite cfind_rc_upd, cfind_dec_children, Pos.eqb_refl, F0. simpl. split; [reflexivity | exact L0].
  - destruct (Nat.ltb (cnode_count s) cap).
    + exists (cfresh (cn s)). eexists. split; [reflexivity|]. cbn [cn]. rewrite cfind_cons, Pos.eqb_refl.
      split; reflexivity.
    + rewrite Hd. exact I.
Qed.

(** ** the cache *)

Section Alg.
Variable gt : ref -> ref -> bool.
Variable C : Type.
Variable cget : C -> N -> list ref -> option ref.
Variable cadd : C -> N -> list ref -> ref -> C.
Variable par : nat -> bool.
Hypothesis Hlossy : lossy cget cadd.

(** every entry: result and operands stored; result not above the top-most operand
    (except for substitution entries, whose replacement functions may sit anywhere) *)
Definition COK (t : ctable) (c : C) : Prop :=
  forall code args h, cget c code args = Some h ->
    stored t h /\ (forall r, In r args -> stored t r) /\
    (lvl_code code = true -> minlvl t args <= crlevel t h).

Lemma COK_ext : forall s s' c, ext s s' -> COK (cn s) c -> COK (cn s') c.
Proof.
  intros s s' c X H code args h G. destruct (H code args h G) as [Sh [Sa L]].
  split; [eapply ext_stored; eauto|]. split; [intros r Hr; eapply ext_stored; eauto|].
  intros Hl. rewrite (ext_minlvl s s' args X Sa), (ext_crlevel s s' h X Sh). exact (L Hl).
Qed.

Lemma COK_add : forall t c code args h, COK t c -> stored t h ->
  (forall r, In r args -> stored t r) -> (lvl_code code = true -> minlvl t args <= crlevel t h) ->
  COK t (cadd c code args h).
Proof.
  intros t c code args h H Sh Sa L code' args' h' G.
  destruct (Hlossy c code args h code' args' h' G) as [[-> [-> ->]]|G']; [auto | apply (H _ _ _ G')].
Qed.

Definition safe (lb : nat) (o : ores C) : Prop :=
  match o with
  | OOk s' c' r => COK (cn s') c' /\ stored (cn s') r /\ lb <= crlevel (cn s') r
  | OErr s' c' => COK (cn s') c'
  | OStuck => False
  end.

Notation bal := (bal terms nl tid C).
Notation err := (err terms tid C).
Notation clone_ret := (clone_ret terms tid C).
Notation finish := (finish terms nl tid cap C cadd).
Notation not_o := (not_o terms nl tid cap C cget cadd par guards_code).
Notation bin_o := (bin_o terms nl tid cap gt C cget cadd par guards_code).
Notation ite_o := (ite_o terms nl tid cap gt C cget cadd par guards_code).

Lemma clone_ret_safe : forall s c h lb, COK (cn s) c -> stored (cn s) h -> lb <= crlevel (cn s) h ->
  safe lb (clone_ret s c h).
Proof.
  intros s c h lb Hc Sh L. unfold OomOwn.clone_ret.
  destruct (o_clone_enabled s h Sh) as [s' Hs]. rewrite Hs.
  destruct (o_clone_spec terms nl tid _ _ _ Hs) as [_ [X _]]. simpl.
  split; [eapply COK_ext; eauto|]. split; [eapply ext_stored; eauto|].
  rewrite (ext_crlevel s s' h X Sh). exact L.
Qed.

Lemma ret_safe : forall s2 s3 c2 code args h lb lb', ext s2 s3 -> COK (cn s2) c2 ->
  stored (cn s3) h -> lb' <= crlevel (cn s3) h -> (forall r, In r args -> stored (cn s2) r) ->
  (lvl_code code = true -> minlvl (cn s2) args <= lb') -> lb <= lb' ->
  safe lb (OOk s3 (cadd c2 code args h) h).
Proof.
  intros s2 s3 c2 code args h lb lb' X Hc Sh Lh Sa La Lb. split; [|split; [exact Sh | lia]].
  apply COK_add; [eapply COK_ext; eauto | exact Sh | intros r Hr; eapply ext_stored; eauto |].
  intros Hl. rewrite (ext_minlvl s2 s3 args X Sa). specialize (La Hl). lia.
Qed.

(** `Ok(manager.get_terminal(b).unwrap())` *)
Lemma term_ret_safe : forall s c b lb, COK (cn s) c -> lb <= nl ->
  safe lb (match term_of tsnap b with Some t => OOk s c (RT t) | None => OStuck end).
Proof.
  intros s c b lb Hc Ln. destruct (term_of_total b) as [t T]. rewrite T.
  split; [exact Hc|]. split; [apply (term_of_stored _ _ _ T) | exact Ln].
Qed.

(** a cached entry is not above any lower bound of its operands *)
Lemma cache_hit_safe : forall s c code args h lb, COK (cn s) c -> cget c code args = Some h ->
  lvl_code code = true -> lb <= nl -> (forall r, In r args -> lb <= crlevel (cn s) r) ->
  safe lb (clone_ret s c h).
Proof.
  intros s c code args h lb Hc G Hl Ln La. destruct (Hc _ _ _ G) as [Sh [_ L]].
  apply clone_ret_safe; auto. etransitivity; [|exact (L Hl)]. apply minlvl_ge; assumption.
Qed.

(** a failing `?` *)
Lemma err_safe : forall s c fr lb rest, CInv s -> COK (cn s) c ->
  (forall r, In (r, true) fr -> stored (cn s) r) -> meq (cown s) (gtoks tid fr ++ rest) ->
  safe lb (err s c fr).
Proof.
  intros s c fr lb rest H Hc St M. unfold OomOwn.err.
  destruct (unwind_enabled fr s rest H St M) as [s' Hu]. rewrite Hu.
  destruct (unwind_spec terms nl tid _ _ _ Hu) as [_ [X _]]. exact (COK_ext _ _ _ X Hc).
Qed.

Lemma finish_safe : forall lvl code args s2 c2 t e lb, CInv s2 -> COK (cn s2) c2 ->
  lvl < nl -> stored (cn s2) t -> stored (cn s2) e ->
  S lvl <= crlevel (cn s2) t -> S lvl <= crlevel (cn s2) e -> has2 s2 t e ->
  (forall r, In r args -> stored (cn s2) r) -> minlvl (cn s2) args <= lvl -> lb <= lvl ->
  safe lb (finish lvl code args s2 c2 t e).
Proof.
  intros lvl code args s2 c2 t e lb H Hc Hl St Se Lt Le H2 Sa La Lb. unfold OomOwn.finish.
  pose proof (o_reduce_spec terms nl tid cap s2 lvl t e) as R. unfold OomOwn.o_reduce in *.
  destruct (ref_eqb t e) eqn:Eq.
  - (* equal children: drop one *)
    apply ref_eqb_eq in Eq. subst e.
    destruct (o_drop_enabled s2 t H St) as [s3 Hd].
    { intros id Er. destruct H2 as [rest M]. apply (tok_in _ t (tokr t ++ rest) id M Er). }
    rewrite Hd in *. destruct R as [_ [X _]].
    apply (ret_safe s2 s3 c2 code args t lb lvl X Hc); auto; [eapply ext_stored; eauto|].
    rewrite (ext_crlevel s2 s3 t X St). lia.
  - pose proof (o_goi_enabled s2 lvl t e H Hl St Se ltac:(lia) ltac:(lia) Eq H2) as G.
    destruct (o_goi s2 lvl t e) as [s3 h|s3|]; [| |destruct G].
    + destruct G as [id [nd [-> [F L]]]]. destruct R as [_ [X _]].
      apply (ret_safe s2 s3 c2 code args (RN id) lb lvl X Hc); auto; [apply stored_RN; eauto|].
      simpl. rewrite F, L. apply le_n.
    + destruct R as [_ [X _]]. unfold OomOwn.err. simpl. eapply COK_ext; eauto.
Qed.

(** the recursors *)
Lemma rec2_safe : forall p s lb lb1 r1 run2 fin, CInv s ->
  bal s [] r1 -> safe lb1 r1 ->
  (forall s1 c1, CInv s1 -> ext s s1 -> COK (cn s1) c1 ->
     bal s1 [] (run2 s1 c1) /\ safe lb1 (run2 s1 c1)) ->
  (forall s2 c2 t e, CInv s2 -> ext s s2 -> COK (cn s2) c2 ->
     stored (cn s2) t -> stored (cn s2) e ->
     lb1 <= crlevel (cn s2) t -> lb1 <= crlevel (cn s2) e -> has2 s2 t e ->
     safe lb (fin s2 c2 t e)) ->
  safe lb (rec2 terms tid C p false r1 run2 fin).
Proof.
  intros p s lb lb1 r1 run2 fin H B1 S1 H2 Hf.
  assert (Hok : forall s1 c1 t, bal s [] (OOk s1 c1 t) -> safe lb1 (OOk s1 c1 t) ->
            safe lb (match run2 s1 c1 with
                     | OStuck => OStuck
                     | OErr s2 c2 => err s2 c2 [(t, negb false)]
                     | OOk s2 c2 e => fin s2 c2 t e
                     end)).
  { intros s1 c1 t [M1 [X1 I1]] [C1 [St Lt]]. pose proof (I1 H) as H1.
    destruct (H2 s1 c1 H1 X1 C1) as [B2 S2].
    destruct (run2 s1 c1) as [s2 c2 e|s2 c2|]; [| |destruct S2].
    - destruct B2 as [M2 [X2 I2]]. destruct S2 as [C2 [Se Le]].
      apply Hf; auto.
      + eapply ext_trans; eauto.
      + eapply ext_stored; eauto.
      + rewrite (ext_crlevel s1 s2 t X2 St). exact Lt.
      + exists (cown s). intro x. generalize (M1 x) (M2 x). mq.
    - destruct B2 as [M2 [X2 I2]]. simpl negb. apply (err_safe s2 c2 _ lb (cown s)); auto.
      + intros r [Er|[]]. inversion Er; subst. eapply ext_stored; eauto.
      + intro x. generalize (M1 x) (M2 x). cbn [gtoks]. mq. }
  destruct p; simpl.
  - unfold par2. destruct r1 as [s1 c1 t|s1 c1|]; [apply Hok; assumption| |destruct S1].
    destruct B1 as [M1 [X1 I1]]. pose proof (I1 H) as H1.
    destruct (H2 s1 c1 H1 X1 S1) as [B2 S2].
    destruct (run2 s1 c1) as [s2 c2 e|s2 c2|]; [| |destruct S2].
    + destruct B2 as [M2 [X2 I2]]. destruct S2 as [C2 [Se Le]]. simpl negb.
      apply (err_safe s2 c2 _ lb (cown s)); auto.
      * intros r [Er|[]]. inversion Er; subst. exact Se.
      * intro x. generalize (M1 x) (M2 x). cbn [gtoks]. mq.
    + unfold OomOwn.err. simpl. exact S2.
  - unfold seq2. destruct r1 as [s1 c1 t|s1 c1|]; [apply Hok; assumption| |destruct S1].
    unfold OomOwn.err. simpl. exact S1.
Qed.

Lemma rec2_finish_safe : forall p s lb lvl code args r1 run2, CInv s -> lvl < nl ->
  (forall r, In r args -> stored (cn s) r) -> minlvl (cn s) args <= lvl -> lb <= lvl ->
  bal s [] r1 -> safe (S lvl) r1 ->
  (forall s1 c1, CInv s1 -> ext s s1 -> COK (cn s1) c1 ->
     bal s1 [] (run2 s1 c1) /\ safe (S lvl) (run2 s1 c1)) ->
  safe lb (rec2 terms tid C p false r1 run2 (finish lvl code args)).
Proof.
  intros p s lb lvl code args r1 run2 H Hl Sa La Lb B1 S1 H2.
  apply (rec2_safe p s lb (S lvl)); auto.
  intros s2 c2 t e I2 X2 C2 St2 Se2 Lt2 Le2 T2. apply finish_safe; auto.
  - intros r Hr. eapply ext_stored; eauto.
  - rewrite (ext_minlvl s s2 args X2 Sa). exact La.
Qed.

(** a stored inner node: two children, stored below it *)
Lemma node_children : forall s id nd, CInv s -> cfind (cn s) id = Some nd ->
  cl nd < nl /\
  exists ft fe, cch nd = [ft; fe] /\ etag ft = false /\ etag fe = false /\
    stored (cn s) (eref ft) /\ stored (cn s) (eref fe) /\
    cl nd < crlevel (cn s) (eref ft) /\ cl nd < crlevel (cn s) (eref fe).
Proof.
  intros s id nd H F. pose proof (ti_pre _ _ _ _ (ci_tbl _ _ _ s H) id nd F) as Hp.
  split; [apply (stored_level_lt KBdd terms nl s id nd H F)|].
  unfold node_pre_b in Hp. rewrite !andb_true_iff in Hp. destruct Hp as [[[[Hlen _] Hch] _] Htag].
  apply Nat.eqb_eq in Hlen. simpl in Hlen.
  destruct (cch nd) as [|ft [|fe [|x r]]]; try discriminate.
  exists ft, fe. simpl in Hch, Htag. repeat rewrite andb_true_iff in Hch. repeat rewrite andb_true_iff in Htag.
  destruct Hch as [[S1 L1] [[S2 L2] _]]. destruct Htag as [T1 [T2 _]].
  apply Nat.ltb_lt in L1, L2. apply negb_true_iff in T1, T2. repeat split; auto.
Qed.

Lemma eref_E : forall e, etag e = false -> E (eref e) = e.
Proof. intros [r t] H. simpl in *. subst. reflexivity. Qed.

(** ** apply_not *)
Lemma not_o_safe : forall fuel s c f lb, CInv s -> COK (cn s) c -> stored (cn s) f ->
  lb <= crlevel (cn s) f -> nl < fuel + lb -> safe lb (not_o fuel s c f).
Proof.
  induction fuel as [|n IH]; intros s c f lb H Hc Sf Lf Hfuel;
    (assert (Ln : lb <= nl) by (pose proof (crlevel_le s f H); lia)); [lia|].
  cbn [OomOwn.not_o]. destruct f as [x|id].
  - destruct (view_stored _ _ Sf) as [b V]. rewrite V. apply term_ret_safe; assumption.
  - destruct (proj1 (stored_RN _ _) Sf) as [nd F]. rewrite F.
    assert (Ef : crlevel (cn s) (RN id) = cl nd) by (simpl; rewrite F; reflexivity).
    assert (Ma : minlvl (cn s) [RN id] <= cl nd).
    { rewrite <- Ef. apply minlvl_le_In. left. reflexivity. }
    destruct (cget c code_not [RN id]) as [h|] eqn:G.
    { apply (cache_hit_safe s c _ _ h lb Hc G eq_refl Ln). intros r [<-|[]]. exact Lf. }
    destruct (node_children s id nd H F) as [Hl [ft [fe [Ech [_ [_ [St [Se [Lt Le]]]]]]]]].
    rewrite Ech. apply (rec2_finish_safe (par n) s lb (cl nd) _ [RN id] _ _ H Hl).
    + intros r [<-|[]]. exact Sf.
    + exact Ma.
    + lia.
    + apply not_o_bal.
    + apply IH; auto. lia.
    + intros s1 c1 H1 X1 C1. split; [apply not_o_bal|].
      apply IH; auto; [eapply ext_stored; eauto | rewrite (ext_crlevel s s1 _ X1 Se); exact Le | lia].
Qed.

(** the cofactor pair of a stored inner operand w.r.t. a level not below its own *)
Lemma ccof2_facts : forall s id nd lvl, CInv s -> cfind (cn s) id = Some nd -> lvl <= cl nd ->
  exists a b, ccof2 (RN id) nd lvl = Some (a, b) /\ stored (cn s) a /\ stored (cn s) b /\
              lvl < crlevel (cn s) a /\ lvl < crlevel (cn s) b.
Proof.
  intros s id nd lvl H F L. unfold ccof2.
  destruct (node_children s id nd H F) as [Hl [ft [fe [Ech [_ [_ [St [Se [Lt Le]]]]]]]]].
  destruct (Nat.eqb_spec (cl nd) lvl) as [Eq|Ne].
  - rewrite Ech. exists (eref ft), (eref fe). subst lvl. auto.
  - exists (RN id), (RN id). assert (S1 : stored (cn s) (RN id)) by (apply stored_RN; eauto).
    simpl. rewrite F. repeat split; auto; lia.
Qed.

(** ** apply_bin *)
Lemma bin_o_safe : forall fuel s c op f g lb, CInv s -> COK (cn s) c ->
  stored (cn s) f -> stored (cn s) g -> lb <= crlevel (cn s) f -> lb <= crlevel (cn s) g ->
  nl < fuel + lb -> safe lb (bin_o fuel s c op f g).
Proof.
  induction fuel as [|n IH]; intros s c op f g lb H Hc Sf Sg Lf Lg Hfuel;
    (assert (Ln : lb <= nl) by (pose proof (crlevel_le s f H); lia)); [lia|].
  cbn [OomOwn.bin_o].
  pose proof (terminal_bin_facts gt tsnap op f g) as TB.
  destruct (terminal_bin gt tsnap op f g) as [h|r|o a b|].
  - (* Done *)
    destruct TB as [->|[->|[b [t [T ->]]]]]; apply clone_ret_safe; auto.
    apply (term_of_stored _ _ _ T).
  - (* Not *)
    destruct TB as [-> | ->]; apply not_o_safe; auto.
  - (* Binary *)
    destruct TB as [Vf [Vg Hab]].
    destruct (view_VI_RN _ Vf) as [i ->]. destruct (view_VI_RN _ Vg) as [j ->].
    assert (Iab : forall r, In r [a; b] <-> In r [RN i; RN j]).
    { destruct Hab as [[-> ->]|[-> ->]]; intros r; [apply iff_refl|].
      split; intros [<-|[<-|[]]]; simpl; auto. }
    clear Hab.
    assert (Oab : forall r, In r [a; b] -> stored (cn s) r /\ lb <= crlevel (cn s) r).
    { intros r Hr. apply Iab in Hr. destruct Hr as [<-|[<-|[]]]; auto. }
    destruct (cget c (op_code o) [a; b]) as [h|] eqn:G.
    { apply (cache_hit_safe s c _ _ h lb Hc G (lvl_code_op o) Ln). intros r Hr. apply Oab. exact Hr. }
    destruct (proj1 (stored_RN _ _) Sf) as [fnode Ff]. destruct (proj1 (stored_RN _ _) Sg) as [gnode Fg].
    cbn [cinner]. rewrite Ff, Fg.
    pose proof (minlvl_le_In (cn s) [a; b] (RN i) (proj2 (Iab _) (or_introl eq_refl))) as Mf.
    pose proof (minlvl_le_In (cn s) [a; b] (RN j) (proj2 (Iab _) (or_intror (or_introl eq_refl)))) as Mg.
    simpl crlevel in Lf, Lg, Mf, Mg. rewrite Ff in Lf, Mf. rewrite Fg in Lg, Mg.
    pose proof (stored_level_lt KBdd terms nl s i fnode H Ff) as Hl.
    set (lvl := Nat.min (cl fnode) (cl gnode)).
    assert (Hlvl : lb <= lvl /\ minlvl (cn s) [a; b] <= lvl /\ lvl <= cl fnode /\ lvl <= cl gnode)
      by (unfold lvl; lia).
    clearbody lvl. destruct Hlvl as [Hlb [Hm [Hf Hg]]].
    destruct (ccof2_facts s i fnode lvl H Ff Hf) as [ft [fe [Ef [Sft [Sfe [Lft Lfe]]]]]].
    destruct (ccof2_facts s j gnode lvl H Fg Hg) as [gt' [ge [Eg [Sgt [Sge [Lgt Lge]]]]]].
    rewrite Ef, Eg.
    apply (rec2_finish_safe (par n) s lb lvl _ [a; b] _ _ H ltac:(lia)).
    + intros r Hr. apply Oab. exact Hr.
    + exact Hm.
    + exact Hlb.
    + apply bin_o_bal.
    + apply IH; auto. lia.
    + intros s1 c1 H1 X1 C1. split; [apply bin_o_bal|].
      apply IH; auto; try (eapply ext_stored; eauto); try (rewrite (ext_crlevel s s1 _ X1); assumption). lia.
  - (* Fail: impossible *)
    destruct (term_of_total true) as [t1 T1]. destruct (term_of_total false) as [t0 T0].
    pose proof (view_stored _ _ Sf) as Vf. pose proof (view_stored _ _ Sg) as Vg.
    destruct TB as [V|[V|[V|V]]]; try congruence.
    + destruct f; [destruct Vf as [b Vf]|]; congruence.
    + destruct g; [destruct Vg as [b Vg]|]; congruence.
Qed.

(** ** apply_ite *)
Lemma ite_o_safe : forall fuel s c f g h lb, CInv s -> COK (cn s) c ->
  stored (cn s) f -> stored (cn s) g -> stored (cn s) h ->
  lb <= crlevel (cn s) f -> lb <= crlevel (cn s) g -> lb <= crlevel (cn s) h ->
  nl < fuel + lb -> safe lb (ite_o fuel s c f g h).
Proof.
  induction fuel as [|n IH]; intros s c f g h lb H Hc Sf Sg Sh Lf Lg Lh Hfuel;
    (assert (Ln : lb <= nl) by (pose proof (crlevel_le s f H); lia)); [lia|].
  cbn [OomOwn.ite_o].
  destruct (ref_eqb g h); [apply clone_ret_safe; auto|].
  destruct (ref_eqb f g); [apply bin_o_safe; auto|].
  destruct (ref_eqb f h); [apply bin_o_safe; auto|].
  pose proof (view_stored _ _ Sf) as Vf. pose proof (view_stored _ _ Sg) as Vg.
  pose proof (view_stored _ _ Sh) as Vh.
  destruct f as [xf|i].
  { destruct Vf as [b Vf]. rewrite Vf. destruct b; apply clone_ret_safe; auto. }
  rewrite Vf. destruct g as [xg|j]; destruct h as [xh|k].
  - destruct Vg as [bg Vg]. destruct Vh as [bh Vh]. rewrite Vg, Vh.
    destruct bg; [apply clone_ret_safe | apply not_o_safe]; auto.
  - destruct Vg as [bg Vg]. rewrite Vg, Vh. destruct bg; apply bin_o_safe; auto.
  - destruct Vh as [bh Vh]. rewrite Vg, Vh. destruct bh; apply bin_o_safe; auto.
  - rewrite Vg, Vh.
    destruct (cget c code_ite [RN i; RN j; RN k]) as [r|] eqn:G.
    { apply (cache_hit_safe s c _ _ r lb Hc G eq_refl Ln). intros r' [<-|[<-|[<-|[]]]]; assumption. }
    destruct (proj1 (stored_RN _ _) Sf) as [fnode Ff]. destruct (proj1 (stored_RN _ _) Sg) as [gnode Fg].
    destruct (proj1 (stored_RN _ _) Sh) as [hnode Fh].
    cbn [cinner]. rewrite Ff, Fg, Fh.
    pose proof (minlvl_le_In (cn s) [RN i; RN j; RN k]) as Ma.
    pose proof (Ma (RN i) ltac:(simpl; auto)) as Mf. pose proof (Ma (RN j) ltac:(simpl; auto)) as Mg.
    pose proof (Ma (RN k) ltac:(simpl; auto)) as Mh. clear Ma.
    simpl crlevel in Lf, Lg, Lh, Mf, Mg, Mh. rewrite Ff in Lf, Mf. rewrite Fg in Lg, Mg. rewrite Fh in Lh, Mh.
    pose proof (stored_level_lt KBdd terms nl s i fnode H Ff) as Hl.
    set (lvl := Nat.min (Nat.min (cl fnode) (cl gnode)) (cl hnode)).
    assert (Hlvl : lb <= lvl /\ minlvl (cn s) [RN i; RN j; RN k] <= lvl /\
                   lvl <= cl fnode /\ lvl <= cl gnode /\ lvl <= cl hnode) by (unfold lvl; lia).
    clearbody lvl. destruct Hlvl as [Hlb [Hm [Hf [Hg Hh]]]].
    destruct (ccof2_facts s i fnode lvl H Ff Hf) as [ft [fe [Ef [Sft [Sfe [Lft Lfe]]]]]].
    destruct (ccof2_facts s j gnode lvl H Fg Hg) as [gt' [ge [Eg [Sgt [Sge [Lgt Lge]]]]]].
    destruct (ccof2_facts s k hnode lvl H Fh Hh) as [ht [he [Eh [Sht [She [Lht Lhe]]]]]].
    rewrite Ef, Eg, Eh.
    apply (rec2_finish_safe (par n) s lb lvl _ [RN i; RN j; RN k] _ _ H ltac:(lia)).
    + intros r [<-|[<-|[<-|[]]]]; assumption.
    + exact Hm.
    + exact Hlb.
    + apply ite_o_bal.
    + apply IH; auto. lia.
    + intros s1 c1 H1 X1 C1. split; [apply ite_o_bal|].
      apply IH; auto; try (eapply ext_stored; eauto); try (rewrite (ext_crlevel s s1 _ X1); assumption). lia.
Qed.

End Alg.
End Safe.
