(** * C14x - the statements about the ownership model (Mgr/OomOwn.v), collected

    For [not_o] / [bin_o] / [ite_o] with the guard placement of the code
    ([guards_code]), every capacity [cap] (= every failure point), every cache
    implementation, every recursor choice [par], every operand order [gt]:

    1. BALANCE ([own_balance_*]; no hypothesis): after [OOk s' _ r] the operation's
       thread owns exactly the caller's tokens plus one token for [r]; after
       [OErr s' _] exactly the caller's tokens.  Nothing leaked, nothing released
       twice.  Every old node is still stored with its level and children.
    2. COUNTS ([own_counts_*]): [CInv] (exact reference counts = owners + parents,
       table structurally intact) is preserved by every outcome; as a snapshot:
       [WF] and [rc_exact_b].
    3. TOTAL ([own_total_*]): under [CInv], stored operands, a cache whose entries
       refer to stored nodes ([COK]), Boolean terminals and fuel > number of
       levels the run is never [OStuck]: no edge is released that the operation
       does not own, no count underflows, get_or_insert's precondition holds, no
       `unwrap` fails.
    4. ROLLBACK ([own_err_collect_{not,bin,ite}]): after [OErr s' _] the
       collection of Mgr/ConcGc.v leaves exactly the nodes of the ORIGINAL table
       that are reachable from the caller's tokens - entry by entry (level,
       children, count) the table a collection of the state before the operation
       would have produced. *)

From Coq Require Import List NArith PArith Bool Arith Lia Permutation.
From OxiVerif Require Import DD.Table DD.TableProofs DD.Sem DD.Build DD.Apply DD.ApplyProofs
  Mgr.Conc Mgr.ConcBase Mgr.ConcProofs Mgr.ConcSnap Mgr.ConcGc Mgr.ConcGcProofs
  Mgr.OomOwn Mgr.OomOwnProofs Mgr.OomOwnSafe Mgr.OomOwnGc.
Import ListNotations.

Section Thms.
Variable terms : list (N * N).
Variable nl : nat.
Variable tid : nat.
Variable cap : nat.
Variable gt : ref -> ref -> bool.
Variable C : Type.
Variable cget : C -> N -> list ref -> option ref.
Variable cadd : C -> N -> list ref -> ref -> C.
Variable par : nat -> bool.

Notation CInv := (CInv KBdd terms nl).
Notation tokr := (tokr tid).
Notation not_o := (not_o terms nl tid cap C cget cadd par guards_code).
Notation bin_o := (bin_o terms nl tid cap gt C cget cadd par guards_code).
Notation ite_o := (ite_o terms nl tid cap gt C cget cadd par guards_code).
Notation to_snap := (to_snap KBdd terms nl).
Notation collect := (collect KBdd terms nl).

(** what statements 1 and 2 say about an outcome of a run started in [s] *)
Definition own_post (s : cst) (o : ores C) : Prop :=
  match o with
  | OOk s' _ r =>
    Permutation (cown s') (tokr r ++ cown s) /\ ext s s' /\ (CInv s -> CInv s')
  | OErr s' _ =>
    Permutation (cown s') (cown s) /\ ext s s' /\ (CInv s -> CInv s')
  | OStuck => True
  end.

Lemma bal_post : forall s o, bal terms nl tid C s [] o -> own_post s o.
Proof.
  intros s [s' c' r|s' c'|] B; simpl in *; [| |exact I];
    destruct B as [M [X I0]]; (split; [apply meq_perm; exact M | auto]).
Qed.

Theorem own_balance_not : forall fuel s c f, own_post s (not_o fuel s c f).
Proof. intros. apply bal_post. apply not_o_bal. Qed.

Theorem own_balance_bin : forall fuel s c op f g, own_post s (bin_o fuel s c op f g).
Proof. intros. apply bal_post. apply bin_o_bal. Qed.

Theorem own_balance_ite : forall fuel s c f g h, own_post s (ite_o fuel s c f g h).
Proof. intros. apply bal_post. apply ite_o_bal. Qed.

(** 2. as a snapshot of the manager: well-formed with exact reference counts *)
Lemma own_post_counts : forall s o s', CInv s -> terms_unique_b terms = true -> own_post s o ->
  ores_st o = Some s' ->
  CInv s' /\ WF (to_snap s') /\ rc_exact_b (to_snap s') [] = true.
Proof.
  intros s o s' H Ht P E.
  assert (H' : CInv s').
  { destruct o as [s1 c1 r|s1 c1|]; simpl in E; inversion E; subst; destruct P as [_ [_ I0]]; auto. }
  split; [exact H'|]. apply conc_wf; assumption.
Qed.

Theorem own_counts_not : forall fuel s c f s', CInv s -> terms_unique_b terms = true ->
  ores_st (not_o fuel s c f) = Some s' ->
  CInv s' /\ WF (to_snap s') /\ rc_exact_b (to_snap s') [] = true.
Proof. intros fuel s c f s' H Ht. apply (own_post_counts s); auto. apply own_balance_not. Qed.

Theorem own_counts_bin : forall fuel s c op f g s', CInv s -> terms_unique_b terms = true ->
  ores_st (bin_o fuel s c op f g) = Some s' ->
  CInv s' /\ WF (to_snap s') /\ rc_exact_b (to_snap s') [] = true.
Proof. intros fuel s c op f g s' H Ht. apply (own_post_counts s); auto. apply own_balance_bin. Qed.

Theorem own_counts_ite : forall fuel s c f g h s', CInv s -> terms_unique_b terms = true ->
  ores_st (ite_o fuel s c f g h) = Some s' ->
  CInv s' /\ WF (to_snap s') /\ rc_exact_b (to_snap s') [] = true.
Proof. intros fuel s c f g h s' H Ht. apply (own_post_counts s); auto. apply own_balance_ite. Qed.

(** 3. never stuck *)
Notation stored := (stored terms).
Notation COK := (COK terms nl C cget).

Definition own_total (o : ores C) : Prop :=
  match o with
  | OOk s' c' r => stored (cn s') r /\ COK (cn s') c'
  | OErr s' c' => COK (cn s') c'
  | OStuck => False
  end.

Lemma safe_total : forall lb o, safe terms nl C cget lb o -> own_total o.
Proof. intros lb [s' c' r|s' c'|] S; simpl in *; [|exact S|exact S]. destruct S as [A [B _]]. auto. Qed.

Section Total.
Hypothesis BT : bterms_ok terms.
Hypothesis Hlossy : lossy cget cadd.

Theorem own_total_not : forall fuel s c f, CInv s -> COK (cn s) c -> stored (cn s) f ->
  S nl <= fuel -> own_total (not_o fuel s c f).
Proof.
  intros fuel s c f H Hc Sf Hf. apply (safe_total 0).
  apply (not_o_safe terms nl tid cap BT C cget cadd par Hlossy); auto; lia.
Qed.

Theorem own_total_bin : forall fuel s c op f g, CInv s -> COK (cn s) c ->
  stored (cn s) f -> stored (cn s) g -> S nl <= fuel -> own_total (bin_o fuel s c op f g).
Proof.
  intros fuel s c op f g H Hc Sf Sg Hf. apply (safe_total 0).
  apply (bin_o_safe terms nl tid cap BT gt C cget cadd par Hlossy); auto; lia.
Qed.

Theorem own_total_ite : forall fuel s c f g h, CInv s -> COK (cn s) c ->
  stored (cn s) f -> stored (cn s) g -> stored (cn s) h -> S nl <= fuel ->
  own_total (ite_o fuel s c f g h).
Proof.
  intros fuel s c f g h H Hc Sf Sg Sh Hf. apply (safe_total 0).
  apply (ite_o_safe terms nl tid cap BT gt C cget cadd par Hlossy); auto; lia.
Qed.
End Total.

(** 4. rollback by the collector *)
Definition rolled_back (s s' : cst) : Prop :=
  (forall id,
    ((exists nd', cfind (cn (collect s')) id = Some nd') <->
     (exists nd, cfind (cn s) id = Some nd) /\
     (exists o, In o (cown s) /\ creach (cn s) (eref (snd o)) (RN id))) /\
    (forall nd', cfind (cn (collect s')) id = Some nd' ->
       exists nd, cfind (cn s) id = Some nd /\ cl nd' = cl nd /\ cch nd' = cch nd)) /\
  (forall id, cfind (cn (collect s')) id = cfind (cn (collect s)) id) /\
  Permutation (cown (collect s')) (cown s).

Lemma own_post_rollback : forall s s' c', CInv s -> own_post s (OErr s' c') -> rolled_back s s'.
Proof.
  intros s s' c' H [P [X I0]]. pose proof (I0 H) as H'. apply meq_perm in P.
  split; [intros id; apply (krollback_collect KBdd terms nl s s' H H' X P)|].
  destruct (krollback_same KBdd terms nl s s' H H' X P) as [A B]. split; [exact A|].
  destruct (collect_keeps KBdd terms nl s H) as [Ko _]. rewrite <- Ko. exact B.
Qed.

Theorem own_err_collect_not : forall fuel s c f s' c', CInv s ->
  not_o fuel s c f = OErr s' c' -> rolled_back s s'.
Proof.
  intros fuel s c f s' c' H E. apply (own_post_rollback s s' c' H). rewrite <- E. apply own_balance_not.
Qed.

Theorem own_err_collect_bin : forall fuel s c op f g s' c', CInv s ->
  bin_o fuel s c op f g = OErr s' c' -> rolled_back s s'.
Proof.
  intros fuel s c op f g s' c' H E. apply (own_post_rollback s s' c' H). rewrite <- E. apply own_balance_bin.
Qed.

Theorem own_err_collect_ite : forall fuel s c f g h s' c', CInv s ->
  ite_o fuel s c f g h = OErr s' c' -> rolled_back s s'.
Proof.
  intros fuel s c f g h s' c' H E. apply (own_post_rollback s s' c' H). rewrite <- E. apply own_balance_ite.
Qed.

End Thms.

(** the meaning of [ext] and of the cache invariant [COK], spelled out *)
Lemma ext_meaning : forall s s',
  ext s s' <-> forall id nd, cfind (cn s) id = Some nd ->
    exists nd', cfind (cn s') id = Some nd' /\ cl nd' = cl nd /\ cch nd' = cch nd.
Proof. intros s s'. reflexivity. Qed.

Lemma cok_meaning : forall terms nl C cget t (c : C),
  COK terms nl C cget t c <->
  forall code args h, cget c code args = Some h ->
    cref_ok_b terms t h = true /\ (forall r, In r args -> cref_ok_b terms t r = true) /\
    (N.ltb code 39 = true -> minlvl nl t args <= crlevel nl t h).
Proof. intros. reflexivity. Qed.
