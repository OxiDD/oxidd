(** * C14o - the ZBDD ownership model on a concrete manager: non-vacuity, refutation of
      the seeded guard placement (seeded/C14g)

    [exz]: a ZBDD manager with two variables as the code builds it: terminals Empty
    (id 0) and Base (id 1); the tautology chain taut(1) = node 1 = (level 1, [Base,
    Base]), taut(0) = node 2 = (level 0, [1, 1]), each owned once by the manager's
    `ZBDDCache` (tokens of owner 1); the Boolean variables x0 = node 3 = (level 0,
    [taut(1), Empty]) and x1 = node 5 = (level 0, [4, 4]) with 4 = (level 1, [Base,
    Empty]), each owned once by the caller (thread 0).  Counts exact ([exz_inv]). *)

From Coq Require Import List NArith PArith Bool Arith Lia Permutation.
From OxiVerif Require Import DD.Table DD.TableProofs DD.Sem DD.Build DD.Apply DD.FamSpec DD.ZbddOps DD.ZbddBool
  Mgr.Conc Mgr.ConcBase Mgr.ConcProofs Mgr.ConcSnap Mgr.ConcGc Mgr.ConcGcProofs
  Mgr.OomOwn Mgr.OomOwnProofs Mgr.OomOwnZK Mgr.OomOwnZKProofs Mgr.OomOwnZGc Mgr.OomOwnZ Mgr.OomOwnZProofs
  Mgr.OomOwnZThms.
Import ListNotations.

Definition zterms : list (N * N) := [(0%N, 0%N); (1%N, 1%N)].
Definition zT0 := E (RT 0%N).
Definition zT1 := E (RT 1%N).
Definition zN (p : positive) := E (RN p).

Definition exz : cst := mkCst
  [ (5%positive, mkC 0 [zN 4; zN 4] 1%N);
    (4%positive, mkC 1 [zT1; zT0] 2%N);
    (3%positive, mkC 0 [zN 1; zT0] 1%N);
    (2%positive, mkC 0 [zN 1; zN 1] 1%N);
    (1%positive, mkC 1 [zT1; zT1] 4%N) ]
  [ (0, zN 3); (0, zN 5); (1, zN 1); (1, zN 2) ].

Example exz_inv : CInv KZbdd zterms 2 exz /\ terms_unique_b zterms = true.
Proof. split; [apply cinv_b_spec; vm_compute; reflexivity | reflexivity]. Qed.

(** outcome (0 = result, 1 = out of memory, 2 = stuck), stored nodes, tokens owned,
    result, executable invariant *)
Definition zout {C} (r : eres C) :=
  (eres_code r, option_map cnode_count (eres_st r),
   option_map (fun s => length (cown s)) (eres_st r), option_map eref (eres_edge r),
   option_map (cinv_b KZbdd zterms 2) (eres_st r)).

(** x0 <op> x1 for capacities 5 (store full), 6, 7, 8; both recursors: four tokens after
    a failure, five after an inner result, counts exact; nand and equiv need two slots
    (two phases), nor's complement is the terminal Base *)
Example exz_ops : forall p,
  map (fun op => map (fun cap => zout (zop_on zterms 2 0 cap p guards_code exz op (RN 3) (RN 5))) [5; 6; 7; 8])
      [OAnd; ONand; ONor; OXor; OEquiv; OImp] =
  [ [(1, Some 5, Some 4, None, Some true); (0, Some 6, Some 5, Some (RN 6), Some true);
     (0, Some 6, Some 5, Some (RN 6), Some true); (0, Some 6, Some 5, Some (RN 6), Some true)];
    [(1, Some 5, Some 4, None, Some true); (1, Some 6, Some 4, None, Some true);
     (0, Some 7, Some 5, Some (RN 7), Some true); (0, Some 7, Some 5, Some (RN 7), Some true)];
    [(1, Some 5, Some 4, None, Some true); (0, Some 6, Some 4, Some (RT 1), Some true);
     (0, Some 6, Some 4, Some (RT 1), Some true); (0, Some 6, Some 4, Some (RT 1), Some true)];
    [(1, Some 5, Some 4, None, Some true); (0, Some 6, Some 5, Some (RN 6), Some true);
     (0, Some 6, Some 5, Some (RN 6), Some true); (0, Some 6, Some 5, Some (RN 6), Some true)];
    [(1, Some 5, Some 4, None, Some true); (1, Some 6, Some 4, None, Some true);
     (0, Some 7, Some 5, Some (RN 7), Some true); (0, Some 7, Some 5, Some (RN 7), Some true)];
    [(1, Some 5, Some 4, None, Some true); (0, Some 6, Some 5, Some (RN 6), Some true);
     (0, Some 6, Some 5, Some (RN 6), Some true); (0, Some 6, Some 5, Some (RN 6), Some true)] ].
Proof. intros [|]; vm_compute; reflexivity. Qed.

(** equiv with 6 slots: the symmetric difference creates node 6, the complement runs
    out of memory; the guard has released node 6 (count 0), the tokens are literally
    the caller's, and the collection returns the original table *)
Example exz_equiv_garbage :
  match zop_on zterms 2 0 6 false guards_code exz OEquiv (RN 3) (RN 5) with
  | EErr s' _ =>
      cown s' = cown exz /\
      map (fun p => (fst p, crc (snd p))) (cn s') =
        [(6%positive, 0%N); (5%positive, 1%N); (4%positive, 3%N); (3%positive, 1%N);
         (2%positive, 1%N); (1%positive, 4%N)] /\
      collect KZbdd zterms 2 s' = exz
  | _ => False
  end.
Proof. vm_compute. repeat split; reflexivity. Qed.

(** ** Refutation: seeded/C14g - the symmetric difference held as a bare edge while the
    complement runs (`let res = not(&xor)?; drop_edge(xor); Ok(res)`) *)

Definition zleaks {C} (s : cst) (o : eres C) : Prop :=
  match o with
  | EErr s' _ =>
      ~ Permutation (cown s') (cown s) /\
      length (cown s') = S (length (cown s)) /\
      exists id, cfind (cn s) id = None /\
                 cfind (cn (collect KZbdd zterms 2 s')) id <> None
  | _ => False
  end.

Lemma zleaks_intro : forall C s id (o : eres C),
  match o with EErr s' _ => leak_b KZbdd zterms 2 s id s' | _ => false end = true -> zleaks s o.
Proof. intros C s id [s' c r|s' c|] H; try discriminate. exact (leak_b_sound _ _ _ _ _ _ H). Qed.

Theorem ownz_balance_late_equiv_refuted : forall p,
  zleaks exz (zop_on zterms 2 0 6 p guards_late_equiv exz OEquiv (RN 3) (RN 5)) /\
  kown_post KZbdd zterms 2 0 unit exz (zop_on zterms 2 0 6 p guards_code exz OEquiv (RN 3) (RN 5)) /\
  eres_code (zop_on zterms 2 0 6 p guards_code exz OEquiv (RN 3) (RN 5)) = 1 /\
  (* on success the variant is indistinguishable from the code *)
  zop_on zterms 2 0 7 p guards_late_equiv exz OEquiv (RN 3) (RN 5) =
  zop_on zterms 2 0 7 p guards_code exz OEquiv (RN 3) (RN 5).
Proof.
  intros p. split; [|split; [apply ownz_balance_op | split; destruct p; vm_compute; reflexivity]].
  destruct p; apply (zleaks_intro _ _ 6%positive); vm_compute; reflexivity.
Qed.

(** ** Refutation: seeded/C14b - `binary_ternary` with the guards created after both `?`

    [exz3]: three variables; tautology chain 1 = (2, [Base, Base]), 2 = (1, [1, 1]),
    3 = (0, [2, 2]) (owner 1); x0 = 4 = (0, [2, Empty]); 5 = (1, [1, Empty]);
    x1 = 6 = (0, [5, 5]); 7 = (2, [Base, Empty]); 8 = (1, [7, 7]); x2 = 9 = (0, [8, 8]);
    thread 0 owns x0, x1, x2 and node 5.  ite(x2, x0, 5): g = x0 and f = x2 are on the top
    level, h = 5 is below: `binary_ternary(apply_intsec, (fhi, ghi), apply_ite, (flo, glo, h))`;
    with 9 slots (store full) the intersection is a unique-table hit (a new owned edge,
    no allocation) and the ite branch runs out of memory. *)

Definition exz3 : cst := mkCst
  [ (9%positive, mkC 0 [zN 8; zN 8] 1%N);
    (8%positive, mkC 1 [zN 7; zN 7] 2%N);
    (7%positive, mkC 2 [zT1; zT0] 2%N);
    (6%positive, mkC 0 [zN 5; zN 5] 1%N);
    (5%positive, mkC 1 [zN 1; zT0] 3%N);
    (4%positive, mkC 0 [zN 2; zT0] 1%N);
    (3%positive, mkC 0 [zN 2; zN 2] 1%N);
    (2%positive, mkC 1 [zN 1; zN 1] 4%N);
    (1%positive, mkC 2 [zT1; zT1] 4%N) ]
  [ (0, zN 4); (0, zN 6); (0, zN 9); (0, zN 5); (1, zN 1); (1, zN 2); (1, zN 3) ].

Example exz3_inv : CInv KZbdd zterms 3 exz3.
Proof. apply cinv_b_spec. vm_compute. reflexivity. Qed.

(** the leak without a new node: one token more than before, and after the collection
    some node's entry (its count) is not the one a collection of the original state
    yields *)
Theorem ownz_balance_late_bt_refuted : forall p,
  (match zite_on zterms 3 0 9 p guards_late_bt exz3 (RN 9) (RN 4) (RN 5) with
   | EErr s' _ =>
       ~ Permutation (cown s') (cown exz3) /\
       length (cown s') = S (length (cown exz3)) /\
       exists id, cfind (cn (collect KZbdd zterms 3 s')) id <> cfind (cn (collect KZbdd zterms 3 exz3)) id
   | _ => False
   end) /\
  kown_post KZbdd zterms 3 0 unit exz3 (zite_on zterms 3 0 9 p guards_code exz3 (RN 9) (RN 4) (RN 5)) /\
  eres_code (zite_on zterms 3 0 9 p guards_code exz3 (RN 9) (RN 4) (RN 5)) = 1.
Proof.
  intros p. split; [|split; [apply ownz_balance_ite | destruct p; vm_compute; reflexivity]].
  destruct p; vm_compute;
    (split; [intro P; apply Permutation_length in P; discriminate|]; split; [reflexivity|];
     exists 8%positive; discriminate).
Qed.
