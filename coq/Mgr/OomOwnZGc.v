(** * C14o - rollback by the collector, for every kind (the lemmas used - [collect_exact],
      [collect_inv], [collect_keeps] of Mgr/ConcGcProofs.v, [child_live] of Mgr/ConcProofs.v - are generic)

    [krollback_collect] / [krollback_same]: if [s'] extends [s] ([ext]), owns the same
    tokens (as a multiset) and both satisfy [CInv k], then `Manager::gc` ([collect])
    applied to [s'] stores exactly the nodes of [s] reachable from a token of [s], with
    the level, children AND count a collection of [s] itself would have produced. *)

From Coq Require Import List NArith PArith Bool Arith Lia Permutation.
From OxiVerif Require Import DD.Table DD.TableProofs
  Mgr.Conc Mgr.ConcBase Mgr.ConcProofs Mgr.ConcGc Mgr.ConcGcProofs Mgr.OomOwn Mgr.OomOwnProofs.
Import ListNotations.

Section Gc.
Variable k : kind.
Variable terms : list (N * N).
Variable nl : nat.

Notation CInv := (CInv k terms nl).
Notation collect := (collect k terms nl).

Lemma kcreach_ext : forall s s' r r', ext s s' -> creach (cn s) r r' -> creach (cn s') r r'.
Proof.
  intros s s' r r' X Hr. induction Hr as [|j nd e Hr IH F He]; [constructor|].
  destruct (X j nd F) as [nd' [F' [_ Hc]]].
  apply (creach_child (cn s') r j nd' e IH F'). rewrite Hc. exact He.
Qed.

(** from an edge that is valid in [s], the extension reaches nothing new *)
Lemma kcreach_back : forall s s' root r, CInv s -> ext s s' ->
  edge_ok_b k terms (cn s) root = true ->
  creach (cn s') (eref root) r ->
  creach (cn s) (eref root) r /\ (forall id, r = RN id -> exists nd, cfind (cn s) id = Some nd).
Proof.
  intros s s' root r H X Hok Hr. induction Hr as [|j nd e Hr IH F He].
  - split; [constructor|]. intros id Er. apply (edge_ok_b_inner k terms _ _ id Hok Er).
  - destruct IH as [Hr0 Hst]. destruct (Hst j eq_refl) as [nd0 F0].
    destruct (X j nd0 F0) as [nd1 [F1 [_ Hc]]]. rewrite F in F1. inversion F1; subst nd1.
    rewrite Hc in He. split.
    + apply (creach_child (cn s) _ j nd0 e Hr0 F0 He).
    + intros id Er. destruct (child_live k terms nl s j nd0 e id H F0 He Er) as [ndc [Fc _]]. eauto.
Qed.

Theorem krollback_collect : forall s s', CInv s -> CInv s' -> ext s s' -> meq (cown s') (cown s) ->
  forall id,
  ((exists nd', cfind (cn (collect s')) id = Some nd') <->
   (exists nd, cfind (cn s) id = Some nd) /\
   (exists o, In o (cown s) /\ creach (cn s) (eref (snd o)) (RN id))) /\
  (forall nd', cfind (cn (collect s')) id = Some nd' ->
     exists nd, cfind (cn s) id = Some nd /\ cl nd' = cl nd /\ cch nd' = cch nd).
Proof.
  intros s s' H H' X M id.
  destruct (collect_exact k terms nl s' id H') as [Hiff Hshape].
  assert (Hback : (exists nd', cfind (cn (collect s')) id = Some nd') ->
            (exists nd, cfind (cn s) id = Some nd) /\
            (exists o, In o (cown s) /\ creach (cn s) (eref (snd o)) (RN id))).
  { intros Hex. destruct (proj1 Hiff Hex) as [_ [o [Ho Hr]]].
    assert (Ho' : In o (cown s)) by (apply (meq_In _ _ o M Ho)).
    destruct (kcreach_back s s' (snd o) (RN id) H X (ci_own _ _ _ s H o Ho') Hr) as [Hr0 Hst].
    split; [apply (Hst id eq_refl)|]. exists o. auto. }
  split; [split; [exact Hback|]|].
  - intros [[nd F] [o [Ho Hr]]]. apply (proj2 Hiff). split.
    + destruct (X id nd F) as [nd' [F' _]]. eauto.
    + exists o. split.
      * apply (meq_In (cown s) (cown s') o); [|exact Ho]. intro x. symmetry. apply M.
      * apply (kcreach_ext s s' _ _ X Hr).
  - intros nd' F'. destruct (Hshape nd' F') as [nd1 [F1 [L1 C1]]].
    destruct (Hback (ex_intro _ nd' F')) as [[nd F] _].
    destruct (X id nd F) as [nd2 [F2 [L2 C2]]]. rewrite F1 in F2. inversion F2; subst nd2.
    exists nd. split; [exact F|]. split; congruence.
Qed.

(** ** entry by entry the same table as a collection of the state before *)

Lemma kowners_perm : forall l l' id, Permutation l l' -> owners l id = owners l' id.
Proof.
  intros l l' id P. induction P as [|x l l' P IH|x y l|l l' l'' P1 IH1 P2 IH2].
  - reflexivity.
  - rewrite !owners_cons. lia.
  - rewrite !owners_cons. lia.
  - lia.
Qed.

Definition shape_eq (a b : option cnode) : Prop :=
  match a, b with
  | Some x, Some y => cl x = cl y /\ cch x = cch y
  | None, None => True
  | _, _ => False
  end.

Lemma kparents_shape : forall t t' id, NoDup (map fst t) -> NoDup (map fst t') ->
  (forall j, shape_eq (cfind t j) (cfind t' j)) -> parents t id = parents t' id.
Proof.
  induction t as [|[i n] r IH]; intros t' id N N' Hs.
  - assert (t' = []) as ->; [|reflexivity].
    destruct t' as [|[j m] r']; [reflexivity|]. specialize (Hs j). simpl in Hs.
    rewrite Pos.eqb_refl in Hs. destruct Hs.
  - simpl in N. inversion N as [|? ? Hi Nr]; subst.
    pose proof (Hs i) as Hi'. simpl in Hi'. rewrite Pos.eqb_refl in Hi'.
    destruct (cfind t' i) as [n'|] eqn:F'; [|destruct Hi']. destruct Hi' as [_ Hc].
    rewrite (parents_cremove i t' n' id F'). simpl. rewrite Hc. f_equal.
    apply IH; [exact Nr | apply cremove_nodup; exact N'|].
    intros j. rewrite (cfind_cremove i t' j N'). specialize (Hs j). simpl in Hs.
    destruct (Pos.eqb_spec i j) as [->|Hne].
    + rewrite Pos.eqb_refl. destruct (cfind r j) as [x|] eqn:Fr; [|exact I].
      exfalso. apply Hi. apply (cfind_Some_keys r j x Fr).
    + destruct (Pos.eqb_spec j i) as [->|_]; [congruence | exact Hs].
Qed.

Theorem krollback_same : forall s s', CInv s -> CInv s' -> ext s s' -> meq (cown s') (cown s) ->
  (forall id, cfind (cn (collect s')) id = cfind (cn (collect s)) id) /\
  Permutation (cown (collect s')) (cown (collect s)).
Proof.
  intros s s' H H' X M.
  pose proof (collect_inv k terms nl s H) as G. pose proof (collect_inv k terms nl s' H') as G'.
  destruct (collect_keeps k terms nl s H) as [Ko _]. destruct (collect_keeps k terms nl s' H') as [Ko' _].
  assert (P : Permutation (cown (collect s')) (cown (collect s))).
  { rewrite Ko, Ko'. apply meq_perm. exact M. }
  split; [|exact P].
  assert (Hsh : forall j, shape_eq (cfind (cn (collect s')) j) (cfind (cn (collect s)) j)).
  { intros j. destruct (krollback_collect s s' H H' X M j) as [I1 S1].
    destruct (collect_exact k terms nl s j H) as [I2 S2]. unfold shape_eq.
    destruct (cfind (cn (collect s')) j) as [a|] eqn:Fa; destruct (cfind (cn (collect s)) j) as [b|] eqn:Fb.
    - destruct (S1 a eq_refl) as [n1 [F1 [L1 C1]]]. destruct (S2 b eq_refl) as [n2 [F2 [L2 C2]]].
      rewrite F1 in F2. inversion F2; subst. split; congruence.
    - destruct (proj2 I2 (proj1 I1 (ex_intro _ a eq_refl))) as [b Fb']. congruence.
    - destruct (proj2 I1 (proj1 I2 (ex_intro _ b eq_refl))) as [a Fa']. congruence.
    - exact I. }
  intros id. specialize (Hsh id) as Hid. unfold shape_eq in Hid.
  destruct (cfind (cn (collect s')) id) as [a|] eqn:Fa; destruct (cfind (cn (collect s)) id) as [b|] eqn:Fb;
    try (destruct Hid; fail); [|reflexivity].
  destruct Hid as [L Cc]. f_equal.
  pose proof (ci_rc _ _ _ _ G' id a Fa) as Ra. pose proof (ci_rc _ _ _ _ G id b Fb) as Rb.
  rewrite (kowners_perm _ _ id P) in Ra.
  rewrite (kparents_shape _ _ id (ti_nodup _ _ _ _ (ci_tbl _ _ _ _ G')) (ti_nodup _ _ _ _ (ci_tbl _ _ _ _ G)) Hsh) in Ra.
  destruct a as [la ca ra], b as [lb cb rb]. simpl in *. subst. reflexivity.
Qed.

(** ** what a leak looks like, as an executable check (for the seeded slips of
       Mgr/OomOwn*Examples.v) *)

Lemma leak_by_length : forall s s' : cst, length (cown s') = S (length (cown s)) ->
  ~ Permutation (cown s') (cown s).
Proof. intros s s' L P. apply Permutation_length in P. lia. Qed.

Definition leak_b (s : cst) (id : positive) (s' : cst) : bool :=
  Nat.eqb (length (cown s')) (S (length (cown s))) &&
  match cfind (cn s) id, cfind (cn (collect s')) id with
  | None, Some _ => true
  | _, _ => false
  end.

Lemma leak_b_sound : forall s id s', leak_b s id s' = true ->
  ~ Permutation (cown s') (cown s) /\
  length (cown s') = S (length (cown s)) /\
  exists id, cfind (cn s) id = None /\ cfind (cn (collect s')) id <> None.
Proof.
  intros s id s' H. apply andb_true_iff in H. destruct H as [L F]. apply Nat.eqb_eq in L.
  split; [apply leak_by_length; exact L|]. split; [exact L|]. exists id.
  destruct (cfind (cn s) id); [discriminate|].
  destruct (cfind (cn (collect s')) id); [|discriminate]. split; [reflexivity | discriminate].
Qed.

End Gc.
