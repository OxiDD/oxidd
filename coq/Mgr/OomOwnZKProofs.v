(** * C14o - balance ([kbal] of Mgr/OomOwnProofs.v) of the kind-generic primitives and
      combinators of Mgr/OomOwnZK.v that only the ZBDD and the complement-edge rule
      sets use: [e_not], [eclone_ret], [ebind], [efin], [eguarded]; invariant-free *)

From Coq Require Import List NArith PArith Bool Arith Lia Permutation.
From OxiVerif Require Import DD.Table DD.TableProofs DD.Sem DD.Build DD.Apply
  Mgr.Conc Mgr.ConcBase Mgr.ConcProofs Mgr.OomOwn Mgr.OomOwnProofs Mgr.OomOwnZK.
Import ListNotations.

Arguments N.add : simpl never.
Arguments N.sub : simpl never.
Arguments N.mul : simpl never.

Section Proofs.
Variable k : kind.
Variable terms : list (N * N).
Variable nl : nat.
Variable tid : nat.
Variable cap : nat.

Notation toke := (toke tid).
Notation e_clone := (e_clone k terms tid).
Notation e_drop := (e_drop terms tid).
Notation e_not := (e_not k terms tid).
Notation frame_ok := (frame_ok k terms nl).

Lemma toke_cases : forall e, (exists id, eref e = RN id /\ toke e = [(tid, e)]) \/
                             (exists x, eref e = RT x /\ toke e = []).
Proof.
  intros e. unfold OomOwnZK.toke. destruct (eref e) as [x|id]; [right; exists x | left; exists id]; auto.
Qed.

Lemma toke_eflip : forall e, toke (eflip e) = match eref e with RN _ => [(tid, eflip e)] | RT _ => [] end.
Proof. intros e. unfold OomOwnZK.toke, eflip. simpl. reflexivity. Qed.

Lemma e_not_spec : forall s e s', e_not s e = Some s' ->
  meq (toke e ++ cown s') (toke (eflip e) ++ cown s) /\ frame_ok s s'.
Proof.
  intros s e s' H. unfold OomOwnZK.e_not in H. rewrite toke_eflip. unfold OomOwnZK.toke.
  destruct (eref e) as [x|id] eqn:Er.
  - inversion H; subst. split; [apply meq_refl | apply frame_refl].
  - destruct (edge_ok_b k terms (cn s) (eflip e)) eqn:Hok; [|discriminate].
    destruct (take_tok (tid, e) (cown s)) as [own'|] eqn:Ht; [|discriminate].
    inversion H; subst. simpl. split.
    + pose proof (take_tok_meq _ _ _ Ht) as M. intro x. generalize (M x). mq.
    + split; [apply ext_shape; reflexivity|].
      intros I. apply (inv_retoken k terms nl s (tid, e) (tid, eflip e) own' I Ht); [reflexivity | exact Hok].
Qed.

Section Comb.
Variable C : Type.

Notation kbal := (kbal k terms nl tid C).
Notation kbal_meq := (kbal_meq k terms nl tid C).
Notation kbal_after := (kbal_after k terms nl tid C).
Notation eclone_ret := (eclone_ret k terms tid C).

Lemma eclone_ret_bal : forall s c h, kbal s [] (eclone_ret s c h).
Proof.
  intros s c h. unfold OomOwnZK.eclone_ret. destruct (e_clone s h) as [s'|] eqn:H; [|exact I].
  simpl. apply (e_clone_spec k terms nl tid _ _ _ H).
Qed.

Lemma ebind_bal : forall s r rest,
  kbal s [] r ->
  (forall s1 c1 e, kbal s1 (toke e) (rest s1 c1 e)) ->
  kbal s [] (ebind terms tid C r rest).
Proof.
  intros s r rest B Br. destruct r as [s1 c1 e|s1 c1|]; simpl; [| |exact I].
  - destruct B as [M1 F1]. apply (kbal_after s s1 (toke e) []); [exact M1|exact F1|].
    eapply kbal_meq; [|apply Br]. intro x. mq.
  - exact B.
Qed.

Lemma efin_bal : forall s l r c upd, gbal k terms nl tid s l r -> kbal s l (efin terms tid C r c upd).
Proof. intros s l r c upd R. destruct r as [s3 h|s3|]; simpl; [exact R|exact R|exact I]. Qed.

Lemma eguarded_bal : forall s x o,
  kbal s [] o -> kbal s (toke x) (eguarded terms tid C false x o).
Proof.
  intros s x [s1 c r|s1 c|] B; simpl; [| |exact I].
  - destruct (e_drop s1 x) as [s'|] eqn:Hd; [|exact I].
    destruct (e_drop_spec k terms nl tid _ _ _ Hd) as [M2 F2]. destruct B as [M1 F1]. simpl.
    split; [|eapply frame_trans; eauto]. intro y. generalize (M1 y) (M2 y). mq.
  - destruct B as [M1 F1]. pose proof (eerr_bal k terms nl tid C s1 c [(x, true)]) as Eb. cbn [egtoks] in Eb.
    apply (kbal_after s s1 [] (toke x)); [exact M1|exact F1|].
    eapply kbal_meq; [|exact Eb]. intro y. mq.
Qed.

End Comb.
End Proofs.
