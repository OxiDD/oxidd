(** * C14o - ownership balance of the ZBDD apply algorithms (Mgr/OomOwnZ.v), for every
      outcome, capacity, cache, recursor, operand order and fuel; invariant-free *)

From Coq Require Import List NArith PArith Bool Arith Lia Permutation.
From OxiVerif Require Import DD.Table DD.TableProofs DD.Sem DD.Build DD.Apply DD.FamSpec DD.ZbddOps DD.ZbddBool
  Mgr.Conc Mgr.ConcBase Mgr.ConcProofs Mgr.OomOwn Mgr.OomOwnProofs Mgr.OomOwnZK Mgr.OomOwnZKProofs Mgr.OomOwnZ.
Import ListNotations.

Arguments N.add : simpl never.
Arguments N.sub : simpl never.
Arguments N.mul : simpl never.

Section Proofs.
Variable terms : list (N * N).
Variable nl : nat.
Variable tid : nat.
Variable cap : nat.

Notation toke := (toke tid).
Notation gbal := (gbal KZbdd terms nl tid).
Notation z_reduce := (z_reduce terms nl tid cap).
Notation z_reduce_bor := (z_reduce_bor terms nl tid cap).

Lemma z_reduce_spec : forall s lvl hi lo, gbal s (toke hi ++ toke lo) (z_reduce s lvl hi lo).
Proof.
  intros s lvl hi lo. unfold OomOwnZ.z_reduce. destruct (is_empty_b _ (eref hi)).
  - destruct (e_drop terms tid s hi) as [s1|] eqn:Hd; [|exact I].
    destruct (e_drop_spec KZbdd terms nl tid _ _ _ Hd) as [M Fr]. split; [|exact Fr].
    intro x. generalize (M x). mq.
  - apply e_goi_spec.
Qed.

Lemma z_reduce_bor_spec : forall s lvl hi lo, gbal s (toke lo) (z_reduce_bor s lvl hi lo).
Proof.
  intros s lvl hi lo. unfold OomOwnZ.z_reduce_bor. destruct (is_empty_b _ hi).
  - split; [apply meq_refl | apply frame_refl].
  - destruct (e_clone KZbdd terms tid s (E hi)) as [s1|] eqn:Hc; [|exact I].
    destruct (e_clone_spec KZbdd terms nl tid _ _ _ Hc) as [M1 F1].
    pose proof (e_goi_spec KZbdd terms nl tid cap s1 lvl (E hi) lo) as G.
    destruct (e_goi KZbdd terms nl tid cap s1 lvl (E hi) lo) as [s' h|s'|]; [| |exact I];
      destruct G as [M Fr]; (split; [|eapply frame_trans; eauto]);
      intro x; generalize (M x) (M1 x); mq.
Qed.

Section Alg.
Variable gt : ref -> ref -> bool.
Variable C : Type.
Variable cget : C -> N -> list ref -> list nat -> option ref.
Variable cadd : C -> N -> list ref -> list nat -> ref -> C.
Variable par : nat -> bool.

Notation kbal := (kbal KZbdd terms nl tid C).
Notation zfin_red := (zfin_red terms nl tid cap C).
Notation zfin_bor := (zfin_bor terms nl tid cap C).
Notation zcadd := (zcadd terms tid C cadd).
Notation zapply_o := (zapply_o terms nl tid cap gt C cget cadd par guards_code).
Notation zapply_not_o := (zapply_not_o terms nl tid cap gt C cget cadd par guards_code).
Notation zsymm_o := (zsymm_o terms nl tid cap gt C cget cadd par guards_code).
Notation zite_o := (zite_o terms nl tid cap gt C cget cadd par guards_code).
Notation zop_o := (zop_o terms nl tid cap gt C cget cadd par guards_code).

Lemma zfin_red_bal : forall s c lvl hi lo, kbal s (toke hi ++ toke lo) (zfin_red s c lvl hi lo).
Proof. intros. unfold OomOwnZ.zfin_red. apply efin_bal. apply z_reduce_spec. Qed.

Lemma zfin_bor_bal : forall s c lvl hi lo, kbal s (toke lo) (zfin_bor s c lvl hi lo).
Proof. intros. unfold OomOwnZ.zfin_bor. apply efin_bal. apply z_reduce_bor_spec. Qed.

Lemma zcadd_bal : forall s r code args, kbal s [] r -> kbal s [] (zcadd r code args).
Proof.
  intros s r code args B. unfold OomOwnZ.zcadd. apply ebind_bal; [exact B|].
  intros s1 c1 e. simpl. split; [apply meq_refl | apply frame_refl].
Qed.

Ltac fin_tac IH :=
  first [ apply ebind_bal; [apply IH | intros; apply zfin_bor_bal]
        | apply erec2_bal; [apply IH | intros; apply IH | intros; apply zfin_red_bal]
        | apply IH ].

Lemma zapply_o_bal : forall fuel s c op f g, kbal s [] (zapply_o fuel s c op f g).
Proof.
  induction fuel as [|n IH]; intros s c op f g; [exact I|].
  cbn [OomOwnZ.zapply_o].
  destruct (zterminal _ op f g) as [|r|]; [exact I | apply eclone_ret_bal |].
  destruct (if zcommutes op && gt f g then (g, f) else (f, g)) as [f' g'].
  destruct (cget c (zop_code op) [f'; g'] []) as [h|]; [apply eclone_ret_bal|].
  destruct (czget terms s f') as [fnode|]; [|exact I].
  destruct (czget terms s g') as [gnode|]; [|exact I].
  apply zcadd_bal.
  destruct (lcmp (clevel fnode) (clevel gnode)).
  - destruct (ckids fnode) as [[fhi flo]|]; [|exact I].
    destruct (ckids gnode) as [[ghi glo]|]; [|exact I].
    destruct (clevel fnode) as [flevel|]; [|exact I].
    apply erec2_bal; [apply IH | intros; apply IH | intros; apply zfin_red_bal].
  - destruct (ckids fnode) as [[fhi flo]|]; [|exact I].
    destruct (clevel fnode) as [flevel|]; [|exact I].
    destruct op; fin_tac IH.
  - destruct (ckids gnode) as [[ghi glo]|]; [|exact I].
    destruct (clevel gnode) as [glevel|]; [|exact I].
    destruct op; fin_tac IH.
Qed.

Lemma zapply_not_o_bal : forall fuel s c f, kbal s [] (zapply_not_o fuel s c f).
Proof.
  intros. unfold OomOwnZ.zapply_not_o. destruct (ctaut terms nl (cn s) 0); [apply zapply_o_bal | exact I].
Qed.

Lemma zsymm_o_bal : forall fuel s c f g, kbal s [] (zsymm_o fuel s c f g).
Proof.
  induction fuel as [|n IH]; intros s c f g; [exact I|].
  cbn [OomOwnZ.zsymm_o].
  destruct (zempty _) as [empty|]; [|exact I].
  destruct (ref_eqb f g); [apply eclone_ret_bal|].
  destruct (ref_eqb f empty); [apply eclone_ret_bal|].
  destruct (ref_eqb g empty); [apply eclone_ret_bal|].
  destruct (if gt f g then (g, f) else (f, g)) as [f' g'].
  destruct (cget c zcode_symm [f'; g'] []) as [h|]; [apply eclone_ret_bal|].
  destruct (czget terms s f') as [fnode|]; [|exact I].
  destruct (czget terms s g') as [gnode|]; [|exact I].
  apply zcadd_bal.
  destruct (lcmp (clevel fnode) (clevel gnode)).
  - destruct (ckids fnode) as [[fhi flo]|]; [|exact I].
    destruct (ckids gnode) as [[ghi glo]|]; [|exact I].
    destruct (clevel fnode) as [flevel|]; [|exact I].
    apply erec2_bal; [apply IH | intros; apply IH | intros; apply zfin_red_bal].
  - destruct (ckids fnode) as [[fhi flo]|]; [|exact I].
    destruct (clevel fnode) as [flevel|]; [|exact I]. fin_tac IH.
  - destruct (ckids gnode) as [[ghi glo]|]; [|exact I].
    destruct (clevel gnode) as [glevel|]; [|exact I]. fin_tac IH.
Qed.

Lemma zite_o_bal : forall fuel s c f g h, kbal s [] (zite_o fuel s c f g h).
Proof.
  induction fuel as [|n IH]; intros s c f g h; [exact I|].
  cbn [OomOwnZ.zite_o].
  destruct (ref_eqb g h); [apply eclone_ret_bal|].
  destruct (ref_eqb f g); [apply zapply_o_bal|].
  destruct (ref_eqb f h); [apply zapply_o_bal|].
  destruct (czget terms s f) as [fnode|]; [|exact I].
  destruct (is_empty_b _ f); [apply eclone_ret_bal|].
  destruct (czget terms s g) as [gnode|]; [|exact I].
  destruct (is_empty_b _ g); [apply zapply_o_bal|].
  destruct (czget terms s h) as [hnode|]; [|exact I].
  destruct (is_empty_b _ h); [apply zapply_o_bal|].
  cbv zeta.
  destruct (ctaut_opt terms nl (cn s) _) as [taut|]; [|exact I].
  destruct (ref_eqb f taut); [apply eclone_ret_bal|].
  destruct (ref_eqb g taut); [apply zapply_o_bal|].
  destruct (cget c zcode_ite [f; g; h] []) as [r|]; [apply eclone_ret_bal|].
  apply zcadd_bal.
  destruct (lcmp (clevel fnode) (lmin (clevel gnode) (clevel hnode))).
  - (* Eq *)
    destruct (ckids fnode) as [[fhi flo]|]; [|exact I].
    destruct (lmin (clevel fnode) _) as [lv|]; [|exact I].
    destruct (lcmp (clevel hnode) (clevel fnode)).
    + destruct (lcmp (clevel gnode) (clevel fnode));
        try (destruct (ckids gnode) as [[ghi glo]|]; [|exact I]);
        destruct (ckids hnode) as [[hhi hlo]|]; try exact I;
        (apply erec2_bal; [first [apply IH | apply zapply_o_bal] | intros; apply IH | intros; apply zfin_red_bal]).
    + destruct (lcmp (clevel gnode) (clevel fnode));
        try (destruct (ckids gnode) as [[ghi glo]|]; [|exact I]);
        destruct (ckids hnode) as [[hhi hlo]|]; try exact I;
        (apply erec2_bal; [first [apply IH | apply zapply_o_bal] | intros; apply IH | intros; apply zfin_red_bal]).
    + destruct (ckids gnode) as [[ghi glo]|]; [|exact I].
      apply erec2_bal; [apply zapply_o_bal | intros; apply IH | intros; apply zfin_red_bal].
  - (* Lt *)
    destruct (ckids fnode) as [[fhi flo]|]; [|exact I]. apply IH.
  - (* Gt *)
    destruct (lcmp (clevel gnode) (clevel hnode)).
    + destruct (ckids hnode) as [[hhi hlo]|]; [|exact I].
      destruct (lmin (clevel fnode) _) as [lv|]; [|exact I].
      destruct (ckids gnode) as [[ghi glo]|]; [|exact I].
      apply ebind_bal; [apply IH | intros; apply zfin_bor_bal].
    + destruct (ckids gnode) as [[ghi glo]|]; [|exact I]. apply IH.
    + destruct (ckids hnode) as [[hhi hlo]|]; [|exact I].
      destruct (lmin (clevel fnode) _) as [lv|]; [|exact I].
      apply ebind_bal; [apply IH | intros; apply zfin_bor_bal].
Qed.

Lemma zop_o_bal : forall fuel s c op f g, kbal s [] (zop_o fuel s c op f g).
Proof.
  intros fuel s c op f g. unfold OomOwnZ.zop_o. destruct op;
    try apply zapply_o_bal; try apply zsymm_o_bal;
    try (apply ebind_bal; [first [apply zapply_o_bal | apply zsymm_o_bal]|];
         intros s1 c1 x; cbn [guards_code];
         eapply kbal_meq; [|apply eguarded_bal; apply zapply_not_o_bal]; apply meq_refl).
  destruct (ctaut terms nl (cn s) 0); [apply zite_o_bal | exact I].
Qed.

End Alg.
End Proofs.
