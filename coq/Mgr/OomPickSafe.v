(** * Out-of-memory behaviour of cube picking (Mgr/OomPick.v), part 2

    Under the invariant of the C13 theorems (BDD: [BddOK], BCDD: [BcddOK], ZBDD:
    [ZbddOK] of DD/PickZbdd.v; the edge is valid; the literal set of
    [pick_cube_dd_set] is a cube diagram): the bounded algorithms never get stuck
    (no [get_node] / [unwrap] panics, the fuel suffices), and whatever they return
    - result or out-of-memory - the table they leave satisfies the invariant and
    extends the table they started from.

    Method (as Mgr/OomTddSafe.v): the [GOk] case is NOT re-proved - it follows from
    the refinement ([pick_dd_sim] ...) and the theorems about the unbounded
    algorithms ([pick_dd_spec], [pick_dd_set_eq_gen] of DD/PickProofs.v,
    [pick_dd_z_spec], [pick_dd_set_z_spec] of DD/PickZbdd.v); the failure case is a
    walk through the bounded algorithm that only needs the preconditions of the
    sub-call (the chosen cofactor is valid and not false) and of the literal's
    node ([add_lit_*_ok]: it is never a panic).

    BDD / BCDD: proved once for the abstract view of DD/PickProofs.v (Section
    [GenSafe], same hypotheses as its Section [Gen]); [pick_cube_dd_set] is
    reduced to [pick_cube_dd] with the choice "polarity in the literal set"
    ([pick_dd_set_c_eq_gen], the bounded counterpart of [pick_dd_set_eq_gen]).
    ZBDD: two direct walks. *)

From Coq Require Import List NArith PArith Bool Arith Lia FMapPositive.
From OxiVerif Require Import DD.Table DD.TableProofs DD.Build DD.BuildProofs DD.Apply DD.ApplyProofs
  DD.SatCount DD.SatCountProofs DD.Pick DD.PickProofs DD.PickBdd DD.PickBcdd DD.PickZbdd
  Mgr.Oom Mgr.OomProofs.
From OxiVerif Require Import Mgr.OomGen Mgr.OomGenProofs Mgr.OomBcddProofs Mgr.OomPick Mgr.OomPickProofs.
Import ListNotations.

(** replace the (unused) state of a run *)
Definition gset_st {C C' R : Type} (c : C') (r : gres C R) : gres C' R :=
  match r with
  | GOk s _ x => GOk s c x
  | GOom s _ => GOom s c
  | GStuck => GStuck
  end.

(** a literal whose unbounded creation succeeds is never a panic *)
Lemma lit_res_fs : forall St (Inv : snap -> St -> Prop) cap s (st : St) o u p tr,
  lit_rel cap s o (Some u) -> Inv s st ->
  fail_safe Inv extends s (lit_res s st o p tr).
Proof.
  intros St Inv cap s st o u p tr [o' [-> _]] I. unfold lit_res.
  apply gfin_safe; [exact I | apply extends_refl].
Qed.

(** ** BDD and BCDD *)

Section GenSafe.
Variable view : snap -> edge -> cview.
Variable OK : snap -> Prop.
Variable good : snap -> edge -> Prop.
Variable den : snap -> edge -> lasg -> bool.

Hypothesis OK_WF : forall s, OK s -> WF s.
Hypothesis view_err : forall s e, OK s -> good s e -> view s e <> CErr.
Hypothesis view_term : forall s e b, OK s -> good s e -> view s e = CTerm b ->
  rlevel s (eref e) = nlevels s /\ forall a, den s e a = b.
Hypothesis view_node : forall s e l t x, OK s -> good s e -> view s e = CNode l t x ->
  l = rlevel s (eref e) /\ l < nlevels s /\ good s t /\ good s x /\
  l < rlevel s (eref t) /\ l < rlevel s (eref x) /\
  (forall a, den s e a = if a l then den s t a else den s x a) /\
  (exists a, den s e a = true).
Hypothesis den_indep : forall s e l a b, OK s -> good s e -> l < rlevel s (eref e) ->
  den s e (updb a l b) = den s e a.

Variable add_lit : snap -> edge -> nat -> bool -> option (snap * edge).
Hypothesis add_lit_ok : forall s sub l c, OK s -> good s sub -> l < nlevels s ->
  l < rlevel s (eref sub) -> (exists a, den s sub a = true) ->
  exists s' r, add_lit s sub l c = Some (s', r) /\ OK s' /\ extends s s' /\ good s' r /\
    rlevel s' (eref r) = l /\ forall a, den s' r a = Bool.eqb (a l) c && den s sub a.

Variable cap : nat.
Variable add_lit_c : snap -> edge -> nat -> bool -> lit_out.
Hypothesis add_lit_rel : forall s sub l c, lit_rel cap s (add_lit_c s sub l c) (add_lit s sub l c).

Notation isf := (is_false view).

(** the invariant of the manager (the state of the choice function is arbitrary) *)
Definition PInv {St : Type} (s : snap) (st : St) : Prop := OK s.

(** what is known about the result of a walk that started at [e0] in [s0]: a
    valid, satisfiable edge at the level of [e0] *)
Definition Qpick (s0 : snap) (e0 : edge) (s' : snap) (r : edge * list step) : Prop :=
  good s' (fst r) /\ rlevel s' (eref (fst r)) = rlevel s0 (eref e0) /\ exists a, den s' (fst r) a = true.

Section Choice.
Variable St : Type.
Variable choice : St -> nat -> edge -> bool * St.

Notation RS := (res_safe (@PInv St) extends).
Notation FS := (fail_safe (@PInv St) extends).

Theorem pick_dd_c_safe : forall fuel s st e, OK s -> good s e -> isf s e = false ->
  nlevels s - rlevel s (eref e) < fuel ->
  RS (Qpick s e) s (pick_dd_c view add_lit_c St choice fuel s st e).
Proof.
  induction fuel as [|f IH]; intros s st e O G Hnf Hf; [lia|].
  apply (safe_by_sim St no_m2 cap 1 (@PInv St) extends _ (Qpick s e) s _ _
           (pick_dd_sim view add_lit cap add_lit_c add_lit_rel St choice (S f) s st e)).
  { destruct (pick_dd_spec view OK good den OK_WF view_err view_term view_node den_indep add_lit add_lit_ok
                St choice (S f) s st e O G Hnf Hf)
      as [s1 [r1 [tr1 [st1 [P [_ [O1 [X1 [G1 [L1 [_ A1]]]]]]]]]]].
    exists s1, st1, (r1, tr1). rewrite P. split; [reflexivity|].
    split; [exact O1|]. split; [exact X1|]. split; [exact G1|]. split; [exact L1 | exact A1]. }
  cbn [pick_dd_c]. unfold is_false in Hnf.
  destruct (view s e) as [|b|l t x] eqn:Ev.
  - exfalso. apply (view_err s e O G Ev).
  - exact I.
  - destruct (view_node s e l t x O G Ev) as [El [Ll [Gt [Gx [Lt [Lx [Hd [a0 Ha0]]]]]]]].
    pose proof (rlevel_le s (OK_WF s O) (eref t)) as Bt.
    pose proof (rlevel_le s (OK_WF s O) (eref x)) as Bx.
    (* the decision, uniformly (as in [pick_dd_spec]) *)
    assert (Hdec : exists c asked st1, decide view St choice s st l e t x = (c, asked, st1) /\
               isf s (if c then t else x) = false).
    { unfold decide. destruct (isf s t) eqn:Ft.
      - exists false, false, st. split; [reflexivity|]. cbv iota.
        destruct (isf s x) eqn:Fx; [|reflexivity]. exfalso.
        rewrite Hd, (isf_true view OK good den view_term s t O Gt Ft),
                (isf_true view OK good den view_term s x O Gx Fx) in Ha0.
        destruct (a0 l); discriminate.
      - destruct (isf s x) eqn:Fx.
        + exists true, false, st. split; [reflexivity | exact Ft].
        + destruct (choice st l e) as [c st1]. exists c, true, st1. split; [reflexivity|].
          destruct c; assumption. }
    destruct Hdec as [c [asked [st1 [Ed Fc]]]]. rewrite Ed.
    assert (Gc : good s (if c then t else x)) by (destruct c; assumption).
    assert (Lc : l < rlevel s (eref (if c then t else x))) by (destruct c; assumption).
    apply (gbind_safe St (@PInv St) extends extends_trans _ _ (Qpick s (if c then t else x)) s).
    + apply IH; auto. destruct c; lia.
    + intros s1 st2 r O1 X1 [G1 [L1 A1]].
      destruct (add_lit_ok s1 (fst r) l c O1 G1 ltac:(rewrite (ext_nlevels _ _ X1); exact Ll)
                  ltac:(rewrite L1; exact Lc) A1) as [s2 [r2 [Ea _]]].
      pose proof (add_lit_rel s1 (fst r) l c) as Hrel. rewrite Ea in Hrel.
      apply (lit_res_fs St (@PInv St) cap s1 st2 _ (s2, r2) _ _ Hrel O1).
Qed.

(** the result is a valid edge *)
Definition Qgood (s' : snap) (r : edge * list step) : Prop := good s' (fst r).

(** [pick_cube_dd_edge] with the standard fuel, any valid edge (the false
    function included: it is returned as it is) *)
Theorem pick_cube_dd_c_rs : forall s st e, OK s -> good s e ->
  res_safe (@PInv St) extends Qgood s (pick_cube_dd_c view add_lit_c St choice s st e).
Proof.
  intros s st e O G. unfold pick_cube_dd_c.
  destruct (isf s e) eqn:F.
  - unfold is_false in F. cbn [pick_dd_c].
    destruct (view s e) as [|[|]|]; try discriminate.
    split; [exact O|]. split; [apply extends_refl | exact G].
  - pose proof (rlevel_le s (OK_WF s O) (eref e)).
    apply (res_safe_weaken St (@PInv St) extends _ (Qpick s e) Qgood s _
             (pick_dd_c_safe (S (nlevels s)) s st e O G F ltac:(lia))).
    intros s' r [Gr _]. exact Gr.
Qed.

End Choice.

(** *** [pick_cube_dd_set] = [pick_cube_dd] with the choice "polarity in the set" *)

Lemma pick_dd_set_c_eq_gen : forall St L fuel s (st : St) e set Lc,
  OK s -> good s e -> good s set -> CubeAt view s set Lc ->
  (forall l, rlevel s (eref e) <= l -> lit_pol Lc l = lit_pol L l) ->
  pick_dd_set_c view add_lit_c St fuel s st e set =
  gset_st st (pick_dd_c view add_lit_c unit (mask_choice (lit_pol L)) fuel s tt e).
Proof.
  intros St L. induction fuel as [|f IH]; intros s st e set Lc O G Gs C Hl; [reflexivity|].
  cbn [pick_dd_set_c pick_dd_c]. destruct (view s e) as [|b|l t x] eqn:Ev; try reflexivity.
  destruct (view_node s e l t x O G Ev) as [El [Ll [Gt [Gx [Lt [Lx _]]]]]].
  destruct (set_choice_cube view OK good den OK_WF view_term view_node s set Lc l O Gs C Ll)
    as [set' [L' [Es [G' [C' Hp]]]]].
  rewrite Es, (Hl l ltac:(lia)). unfold decide.
  assert (Hrec : forall c : bool,
    pick_dd_set_c view add_lit_c St f s st (if c then t else x) set' =
    gset_st st (pick_dd_c view add_lit_c unit (mask_choice (lit_pol L)) f s tt (if c then t else x))).
  { intros c. apply (IH s st (if c then t else x) set' L' O ltac:(destruct c; assumption) G' C').
    intros l0 Hl0. rewrite (Hp l0) by (destruct c; lia). apply Hl. destruct c; lia. }
  assert (Hfin : forall (c asked : bool),
    gbind (pick_dd_set_c view add_lit_c St f s st (if c then t else x) set')
      (fun s1 st1 r => lit_res s1 st1 (add_lit_c s1 (fst r) l c) (mkStep l e (Some c) asked) (snd r)) =
    gset_st st
      (gbind (pick_dd_c view add_lit_c unit (mask_choice (lit_pol L)) f s tt (if c then t else x))
         (fun s1 st2 r => lit_res s1 st2 (add_lit_c s1 (fst r) l c) (mkStep l e (Some c) asked) (snd r)))).
  { intros c asked. rewrite (Hrec c). unfold mask_choice.
    destruct (pick_dd_c view add_lit_c unit _ f s tt (if c then t else x)) as [s1 [] r|s1 []|];
      [|reflexivity|reflexivity].
    cbn [gset_st gbind]. unfold lit_res.
    destruct (add_lit_c s1 (fst r) l c) as [[[s2 r2]|]|]; reflexivity. }
  destruct (isf s t); [exact (Hfin false false)|].
  destruct (isf s x); [exact (Hfin true false) | exact (Hfin (lit_pol L l) true)].
Qed.

Lemma gset_st_safe : forall St (Q : snap -> edge * list step -> Prop) s (st : St) (r : gres unit (edge * list step)),
  res_safe (@PInv unit) extends Q s r -> res_safe (@PInv St) extends Q s (gset_st st r).
Proof. intros St Q s st [s' c' x|s' c'|] H; exact H. Qed.

Section TopLevel.
Variable St : Type.

(** [pick_cube_dd_set_edge] with a literal set that is a cube diagram *)
Theorem pick_cube_dd_set_c_rs : forall s (st : St) e set L, OK s -> good s e -> good s set ->
  cube_lits view (S (nlevels s)) s set = Some L ->
  res_safe (@PInv St) extends Qgood s (pick_cube_dd_set_c view add_lit_c St s st e set).
Proof.
  intros s st e set L O G Gs El. unfold pick_cube_dd_set_c.
  rewrite (pick_dd_set_c_eq_gen St L (S (nlevels s)) s st e set L O G Gs
             (cube_lits_CubeAt view _ _ _ _ El) ltac:(reflexivity)).
  apply gset_st_safe. apply (pick_cube_dd_c_rs unit (mask_choice (lit_pol L)) s tt e O G).
Qed.

End TopLevel.
End GenSafe.

(** ** ZBDD *)

Notation isfz := (is_false view_plain).

Definition ZPInv {St : Type} (s : snap) (st : St) : Prop := ZbddOK s.

(** what is known about the result of a walk that started at [e0] in [s0] *)
Definition Qz (s0 : snap) (e0 : edge) (s' : snap) (r : edge * list step) : Prop :=
  good_z s' (fst r) /\ isfz s' (fst r) = false /\ rlevel s0 (eref e0) <= rlevel s' (eref (fst r)).

Definition Qgood_z (s' : snap) (r : edge * list step) : Prop := good_z s' (fst r).

Section ZSafe.
Variable cap : nat.
Variable St : Type.

Notation RS := (res_safe (@ZPInv St) extends).
Notation FS := (fail_safe (@ZPInv St) extends).

(** the last step of both ZBDD walks: the literal's node on a positive literal
    / don't care, the sub-result on a negative literal *)
Lemma z_step_fs : forall s l (c dnc : bool) p e' s1 st2 (r : edge * list step),
  l < nlevels s -> l < rlevel s (eref e') ->
  ZbddOK s1 -> extends s s1 -> Qz s e' s1 r ->
  FS s1 (if c then lit_res s1 st2 (add_lit_z_cap cap s1 (fst r) l dnc) p (snd r)
         else GOk s1 st2 (fst r, p :: snd r)).
Proof.
  intros s l c dnc p e' s1 st2 r Ll Lc B1 X1 [G1 [F1 L1]].
  destruct c; [|exact I].
  destruct (add_lit_z_ok s1 (fst r) l dnc B1 G1 F1 ltac:(rewrite (ext_nlevels _ _ X1); exact Ll) ltac:(lia))
    as [s2 [r2 [Ea _]]].
  pose proof (add_lit_z_rel cap s1 (fst r) l dnc) as Hrel. rewrite Ea in Hrel.
  apply (lit_res_fs St (@ZPInv St) cap s1 st2 _ (s2, r2) _ _ Hrel B1).
Qed.

Section Choice.
Variable choice : St -> nat -> edge -> bool * St.

Theorem pick_dd_z_c_safe : forall fuel s st e, ZbddOK s -> good_z s e -> isfz s e = false ->
  nlevels s - rlevel s (eref e) < fuel ->
  RS (Qz s e) s (pick_dd_z_c cap St choice fuel s st e).
Proof.
  induction fuel as [|f IH]; intros s st e B G Hnf Hf; [lia|].
  apply (safe_by_sim St no_m2 cap 1 (@ZPInv St) extends _ (Qz s e) s _ _ (pick_dd_z_sim cap St choice (S f) s st e)).
  { destruct (pick_dd_z_spec St choice (S f) s st e B G Hnf Hf)
      as [s1 [r1 [tr1 [st1 [P [_ [B1 [X1 [G1 [F1 [L1 _]]]]]]]]]]].
    exists s1, st1, (r1, tr1). rewrite P. split; [reflexivity|].
    split; [exact B1|]. split; [exact X1|]. split; [exact G1|]. split; [exact F1 | exact L1]. }
  cbn [pick_dd_z_c]. unfold is_false in Hnf.
  destruct (view_plain s e) as [|b|l hi lo] eqn:Ev.
  - exfalso. apply (z_view_err s B e G Ev).
  - exact I.
  - destruct (z_view_node s B e l hi lo G Ev) as [El [Ll [Gh [Gl [Lh [Llo [Fh _]]]]]]].
    pose proof (rlevel_le s (zo_wf s B) (eref hi)) as Bh. pose proof (rlevel_le s (zo_wf s B) (eref lo)) as Bl.
    cbv zeta.
    assert (Hdec : exists (c asked : bool) st1,
      (if edge_eqb hi lo || isfz s lo then (true, false, st)
       else let (c, st') := choice st l e in (c, true, st')) = (c, asked, st1) /\
      isfz s (if c then hi else lo) = false).
    { destruct (edge_eqb hi lo || isfz s lo) eqn:Eo.
      - exists true, false, st. split; [reflexivity | exact Fh].
      - apply orb_false_iff in Eo. destruct Eo as [_ Fl].
        destruct (choice st l e) as [c st1]. exists c, true, st1. split; [reflexivity|].
        destruct c; assumption. }
    destruct Hdec as [c [asked [st1 [Ed Fc]]]]. rewrite Ed.
    assert (Gc : good_z s (if c then hi else lo)) by (destruct c; assumption).
    assert (Lc : l < rlevel s (eref (if c then hi else lo))) by (destruct c; assumption).
    apply (gbind_safe St (@ZPInv St) extends extends_trans _ _ (Qz s (if c then hi else lo)) s).
    + apply IH; auto. destruct c; lia.
    + intros s1 st2 r B1 X1 Q1.
      apply (z_step_fs s l c (edge_eqb hi lo) _ (if c then hi else lo) s1 st2 r Ll Lc B1 X1 Q1).
Qed.

(** [pick_cube_dd_edge] (ZBDD) with the standard fuel, any valid edge *)
Theorem pick_cube_dd_z_c_rs : forall s st e, ZbddOK s -> good_z s e ->
  RS Qgood_z s (pick_cube_dd_z_c cap St choice s st e).
Proof.
  intros s st e B G. unfold pick_cube_dd_z_c.
  destruct (isfz s e) eqn:F.
  - unfold is_false in F. cbn [pick_dd_z_c].
    destruct (view_plain s e) as [|[|]|]; try discriminate.
    split; [exact B|]. split; [apply extends_refl | exact G].
  - pose proof (rlevel_le s (zo_wf s B) (eref e)).
    apply (res_safe_weaken St (@ZPInv St) extends _ (Qz s e) Qgood_z s _
             (pick_dd_z_c_safe (S (nlevels s)) s st e B G F ltac:(lia))).
    intros s' r [Gr _]. exact Gr.
Qed.

End Choice.

(** *** [pick_cube_dd_set] (ZBDD) *)

Theorem pick_dd_set_z_c_safe : forall fuel s (st : St) e set Lc,
  ZbddOK s -> good_z s e -> good_z s set -> CubeZ s set Lc -> isfz s e = false ->
  nlevels s - rlevel s (eref e) < fuel ->
  RS (Qz s e) s (pick_dd_set_z_c cap St fuel s st e set).
Proof.
  induction fuel as [|f IH]; intros s st e set Lc B G Gs C Hnf Hf; [lia|].
  apply (safe_by_sim St no_m2 cap 1 (@ZPInv St) extends _ (Qz s e) s _ _ (pick_dd_set_z_sim cap St (S f) s st e set)).
  { destruct (pick_dd_set_z_spec Lc (S f) s e set Lc B G Gs C ltac:(reflexivity) Hnf Hf)
      as [s1 [r1 [tr1 [P [[B1 [X1 [G1 [F1 [L1 _]]]]] _]]]]].
    exists s1, st, (r1, tr1). rewrite P. split; [reflexivity|].
    split; [exact B1|]. split; [exact X1|]. split; [exact G1|]. split; [exact F1 | exact L1]. }
  cbn [pick_dd_set_z_c]. unfold is_false in Hnf.
  destruct (view_plain s e) as [|b|l hi lo] eqn:Ev.
  - exfalso. apply (z_view_err s B e G Ev).
  - exact I.
  - destruct (z_view_node s B e l hi lo G Ev) as [El [Ll [Gh [Gl [Lh [Llo [Fh _]]]]]]].
    pose proof (rlevel_le s (zo_wf s B) (eref hi)) as Bh. pose proof (rlevel_le s (zo_wf s B) (eref lo)) as Bl.
    pose proof (rlevel_le s (zo_wf s B) (eref set)) as Bs.
    destruct (set_pop_cubez (S (nlevels s)) s set Lc l B Gs C ltac:(lia) Ll)
      as [set' [L' [ni [P [G' [C' _]]]]]].
    rewrite P.
    assert (Hdec : exists c dnc asked : bool,
      (if isfz s lo then (true, false, false)
       else match ni with
            | Some (shi, slo) => (true, if edge_eqb shi slo then edge_eqb hi lo else false, true)
            | None => (false, false, true)
            end) = (c, dnc, asked) /\
      isfz s (if c then hi else lo) = false).
    { destruct (isfz s lo) eqn:Fl.
      - exists true, false, false. split; [reflexivity | exact Fh].
      - destruct ni as [[shi slo]|].
        + eexists true, _, true. split; [reflexivity | exact Fh].
        + exists false, false, true. split; [reflexivity | exact Fl]. }
    destruct Hdec as [c [dnc [asked [Ed Fc]]]]. rewrite Ed.
    assert (Gc : good_z s (if c then hi else lo)) by (destruct c; assumption).
    assert (Lc' : l < rlevel s (eref (if c then hi else lo))) by (destruct c; assumption).
    apply (gbind_safe St (@ZPInv St) extends extends_trans _ _ (Qz s (if c then hi else lo)) s).
    + apply (IH s st (if c then hi else lo) set' L'); auto. destruct c; lia.
    + intros s1 st2 r B1 X1 Q1. cbv zeta.
      apply (z_step_fs s l c dnc _ (if c then hi else lo) s1 st2 r Ll Lc' B1 X1 Q1).
Qed.

(** [pick_cube_dd_set_edge] (ZBDD) with a literal set that is a cube diagram *)
Theorem pick_cube_dd_set_z_c_rs : forall s (st : St) e set L, ZbddOK s -> good_z s e -> good_z s set ->
  cube_lits_z (S (nlevels s)) s set = Some L ->
  RS Qgood_z s (pick_cube_dd_set_z_c cap St s st e set).
Proof.
  intros s st e set L B G Gs El. unfold pick_cube_dd_set_z_c.
  destruct (isfz s e) eqn:F.
  - unfold is_false in F. cbn [pick_dd_set_z_c].
    destruct (view_plain s e) as [|[|]|]; try discriminate.
    split; [exact B|]. split; [apply extends_refl | exact G].
  - pose proof (rlevel_le s (zo_wf s B) (eref e)).
    apply (res_safe_weaken St (@ZPInv St) extends _ (Qz s e) Qgood_z s _
             (pick_dd_set_z_c_safe (S (nlevels s)) s st e set L B G Gs (cube_lits_z_CubeZ _ _ _ _ El) F
                ltac:(lia))).
    intros s' r [Gr _]. exact Gr.
Qed.

End ZSafe.
