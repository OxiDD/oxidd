(** * Out-of-memory behaviour of cube picking (Mgr/OomPick.v), part 3: the C14 statements

    For the two allocating entry points [pick_cube_dd_edge] ([PKDd e], any choice
    function [choice : St -> nat -> edge -> bool * St] with any state) and
    [pick_cube_dd_set_edge] ([PKSet e set]) of the three rule sets ([pkind]) at
    once; [prun_c] = the bounded run in the error monad of the code, [prun_u] =
    the unbounded entry points of DD/Pick.v:

    - [pick_never_wrong], [pick_retry], [pick_monotone]: no hypothesis (every
      table, choice function, state, capacity, edge, literal set);
    - under the invariant of the kind ([pinv]: [BddOK] / [BcOK] / [ZbddOK], the
      invariants of the other C14 families) and [pcall_ok] (the edge is valid; the
      literal set is a valid edge that is a cube diagram):
      [pick_never_wrong_sem] (a result is a valid edge of a table in which
      everything that existed is intact, and it is what the C13 theorems say:
      [pcall_spec]), [pick_safe] (the state after [Err(OutOfMemory)]),
      [pick_no_panic], [pick_exact] (the run fails iff the table of the unbounded
      run does not fit);
    - [pick_nc_exact]: the instance the correspondence run evaluates, under the
      two extracted checkers only. *)

From Coq Require Import List NArith PArith Bool Arith Lia FMapPositive.
From OxiVerif Require Import DD.Table DD.TableProofs DD.Build DD.BuildProofs DD.Apply DD.ApplyProofs
  DD.SatCount DD.SatCountProofs DD.Pick DD.PickProofs DD.PickBdd DD.PickBcdd DD.PickZbdd
  Mgr.Oom Mgr.OomProofs Mgr.OomSafe.
From OxiVerif Require Import Mgr.OomGen Mgr.OomGenProofs Mgr.OomFamily Mgr.OomBcddProofs Mgr.OomBcddSafe Mgr.OomZbddThms
  Mgr.OomPick Mgr.OomPickProofs Mgr.OomPickSafe.
Import ListNotations.

(** ** The invariant, "intact", valid edges, per kind *)

(** the invariants of the C14 families of the three kinds (DD/ApplyProofs.v,
    DD/ApplyBcddProofs.v, DD/ZbddOpsProofs.v) *)
Definition pinv (kind : pkind) (s : snap) : Prop :=
  match kind with
  | PBdd => BddOK s
  | PBcdd => ApplyBcddProofs.BcOK s
  | PZbdd => ZbddOpsProofs.ZbddOK s
  end.

(** [intact] (Mgr/OomSafe.v), [intact_c] (Mgr/OomBcddSafe.v), [intact_z] (Mgr/OomZbddThms.v) *)
Definition pintact (kind : pkind) (s s' : snap) : Prop :=
  match kind with
  | PBdd => intact s s'
  | PBcdd => intact_c s s'
  | PZbdd => intact_z s s'
  end.

(** a valid edge (BDD / ZBDD: untagged) and the Boolean function over the levels
    it denotes (DD/PickBdd.v, DD/PickBcdd.v, DD/PickZbdd.v) *)
Definition pgood (kind : pkind) (s : snap) (e : edge) : Prop :=
  match kind with
  | PBdd => good_bdd s e
  | PBcdd => good_bcdd s e
  | PZbdd => good_z s e
  end.
Definition pden (kind : pkind) (s : snap) (e : edge) : lasg -> bool :=
  match kind with
  | PBdd => den_bdd s e
  | PBcdd => den_bcdd s e
  | PZbdd => den_z s e
  end.

(** [set] is a cube diagram with the literal list [L] *)
Definition pkcube (kind : pkind) (s : snap) (set : edge) (L : list (nat * bool)) : Prop :=
  match kind with
  | PBdd => cube_lits view_plain (S (nlevels s)) s set = Some L
  | PBcdd => cube_lits view_bcdd (S (nlevels s)) s set = Some L
  | PZbdd => cube_lits_z (S (nlevels s)) s set = Some L
  end.

(** the hypothesis on a call *)
Definition pcall_ok (kind : pkind) (s : snap) (k : pcall) : Prop :=
  match k with
  | PKDd e => pgood kind s e
  | PKSet e set => pgood kind s e /\ pgood kind s set /\ exists L, pkcube kind s set L
  end.

(** the two records of the C13 files and of the apply files have the same fields *)
Lemma bcok_iff : forall s, ApplyBcddProofs.BcOK s <-> BcddOK s.
Proof. intros s. split; intros [A B C]; constructor; assumption. Qed.

Lemma zok_iff : forall s, ZbddOpsProofs.ZbddOK s <-> PickZbdd.ZbddOK s.
Proof. intros s. split; intros [A B C D F]; constructor; assumption. Qed.

Theorem pinv_b_spec : forall kind s, pinv_b kind s = true <-> pinv kind s.
Proof.
  intros [] s; unfold pinv_b, pinv;
    [apply bdd_ok_b_spec | apply ApplyBcddProofs.bcok_b_spec | apply ZbddOpsProofs.zbdd_ok_b_spec].
Qed.

Lemma pedge_ok_b_spec : forall kind s e, pedge_ok_b kind s e = true <-> pgood kind s e.
Proof.
  intros [] s e; unfold pedge_ok_b, pgood, good_bdd, good_bcdd, good_z;
    rewrite ?andb_true_iff, ?negb_true_iff, ref_ok_b_spec; tauto.
Qed.

Lemma pcube_b_spec : forall kind s set, pcube_b kind s set = true <-> exists L, pkcube kind s set L.
Proof.
  assert (H : forall o : option (list (nat * bool)),
            match o with Some _ => true | None => false end = true <-> exists L, o = Some L).
  { intros [L|]; split; eauto; [discriminate | intros [L E]; discriminate]. }
  intros [] s set; apply H.
Qed.

(** the extracted checker decides the hypothesis on a call *)
Theorem pcall_ok_b_spec : forall kind s k, pcall_ok_b kind s k = true <-> pcall_ok kind s k.
Proof.
  intros kind s [e|e set]; unfold pcall_ok_b, pcall_ok.
  - apply pedge_ok_b_spec.
  - rewrite !andb_true_iff, !pedge_ok_b_spec, pcube_b_spec. tauto.
Qed.

Theorem pextends_intact : forall kind s s', pinv kind s -> extends s s' -> pintact kind s s'.
Proof.
  intros [] s s' B X; unfold pinv, pintact in *;
    [apply extends_intact | apply extends_intact_c | apply extends_intact_z]; assumption.
Qed.

(** ** The specification of a result (what the C13 theorems say) *)

(** [pick_cube_edge] of the kind (DD/Pick.v) *)
Definition ppick_cube (St : Type) (choice : St -> nat -> edge -> bool * St) (kind : pkind)
    (s : snap) (st : St) (e : edge) : option (option (cubev * list step * St)) :=
  match kind with
  | PBdd => pick_cube_bdd St choice s st e
  | PBcdd => pick_cube_bcdd St choice s st e
  | PZbdd => pick_cube_z St choice s st e
  end.

(** [pick_cube_dd]: the result [r] (in table [s'], with trace [tr] and final
    state [st'] of the choice function) implies the function, is false iff the
    function is, and is exactly the cube [pick_cube] returns with the same choice
    function: same trace (same calls, same answers), same final state, and it
    holds exactly under the assignments that agree with the cube vector; for the
    false function the edge itself is returned and nothing is created *)
Definition dd_spec {St : Type} (den : snap -> edge -> lasg -> bool)
    (pc : option (option (cubev * list step * St)))
    (s : snap) (st : St) (e : edge) (s' : snap) (st' : St) (r : edge) (tr : list step) : Prop :=
  (forall a, den s' r a = true -> den s' e a = true) /\
  ((forall a, den s' r a = false) <-> (forall a, den s e a = false)) /\
  match pc with
  | Some (Some (cb, tr0, st0)) =>
    tr = tr0 /\ st' = st0 /\ forall a, den s' r a = true <-> agrees s a cb
  | Some None => s' = s /\ r = e /\ tr = [] /\ st' = st
  | None => False
  end.

(** [pick_cube_dd_set], BDD / BCDD (the conclusion of [pick_dd_set_bdd_ok] /
    [pick_dd_set_bcdd_ok]): implicant, false iff false, the conjunction of the
    trace's literals, every value that is not forced is the polarity in the set *)
Definition set_spec (view : snap -> edge -> cview) (good : snap -> edge -> Prop)
    (den : snap -> edge -> lasg -> bool)
    (s : snap) (e : edge) (s' : snap) (r : edge) (tr : list step) (L : list (nat * bool)) : Prop :=
  (forall a, den s' r a = true -> den s' e a = true) /\
  ((forall a, den s' r a = false) <-> (forall a, den s e a = false)) /\
  ((exists a0, den s e a0 = true) -> forall a, den s' r a = sat_trace a tr) /\
  forall p, In p tr -> call_ok view good den s p /\
    (sp_asked p = true -> sp_val p = Some (lit_pol L (sp_level p))).

(** [pick_cube_dd_set], ZBDD ([pick_dd_set_z_ok], [pick_dd_set_z_false]) *)
Definition set_spec_z (s : snap) (e : edge) (s' : snap) (r : edge) (tr : list step)
    (L : list (nat * bool)) : Prop :=
  (forall a, den_z s' r a = true -> den_z s' e a = true) /\
  (is_false view_plain s e = true -> s' = s /\ r = e /\ tr = []) /\
  (is_false view_plain s e = false ->
     (forall a, den_z s' r a = zsatb s a 0 tr) /\ (exists a, den_z s' r a = true) /\
     forall p, In p tr -> set_rule s L p).

Definition pset_spec (kind : pkind) (s : snap) (e : edge) (s' : snap) (r : edge) (tr : list step)
    (L : list (nat * bool)) : Prop :=
  match kind with
  | PBdd => set_spec view_plain good_bdd den_bdd s e s' r tr L
  | PBcdd => set_spec view_bcdd good_bcdd den_bcdd s e s' r tr L
  | PZbdd => set_spec_z s e s' r tr L
  end.

Definition pcall_spec (St : Type) (choice : St -> nat -> edge -> bool * St) (kind : pkind)
    (s : snap) (st : St) (k : pcall) (s' : snap) (st' : St) (r : edge * list step) : Prop :=
  match k with
  | PKDd e => dd_spec (pden kind) (ppick_cube St choice kind s st e) s st e s' st' (fst r) (snd r)
  | PKSet e set =>
    st' = st /\ forall L, pkcube kind s set L -> pset_spec kind s e s' (fst r) (snd r) L
  end.

(** the state after a failure *)
Definition pfailed_ok (kind : pkind) (cap : nat) (s s' : snap) : Prop :=
  pinv kind s' /\ extends s s' /\ pintact kind s s' /\
  node_count s <= node_count s' /\ cap <= node_count s'.

(** ** The unbounded run (C13 theorems) *)

(** the hypotheses are the four C13 theorems every kind has about [pick_cube]
    ([pc]) and [pick_cube_dd] ([pdd]) *)
Section DdU.
Variable St : Type.
Variable OK : snap -> Prop.
Variable good : snap -> edge -> Prop.
Variable den : snap -> edge -> lasg -> bool.
Variable pc : snap -> St -> edge -> option (option (cubev * list step * St)).
Variable pdd : snap -> St -> edge -> option (snap * edge * list step * St).
Hypothesis pc_total : forall s st e, OK s -> good s e -> exists r, pc s st e = Some r.
Hypothesis pdd_same_cube : forall s st e cb tr st', OK s -> good s e ->
  pc s st e = Some (Some (cb, tr, st')) ->
  exists s' r, pdd s st e = Some (s', r, tr, st') /\ OK s' /\ extends s s' /\ good s' r /\
    forall a, den s' r a = true <-> agrees s a cb.
Hypothesis pdd_false : forall s st e, OK s -> good s e -> pc s st e = Some None ->
  pdd s st e = Some (s, e, [], st).
Hypothesis pdd_implicant : forall s st e s' r tr st', OK s -> good s e ->
  pdd s st e = Some (s', r, tr, st') ->
  OK s' /\ extends s s' /\ good s' r /\
  (forall a, den s' r a = true -> den s' e a = true) /\
  ((forall a, den s' r a = false) <-> (forall a, den s e a = false)).

Lemma dd_u_ok : forall s st e, OK s -> good s e ->
  exists s' r tr st', pdd s st e = Some (s', r, tr, st') /\
    OK s' /\ extends s s' /\ good s' r /\ dd_spec den (pc s st e) s st e s' st' r tr.
Proof.
  intros s st e B G.
  assert (H : exists s' r tr st', pdd s st e = Some (s', r, tr, st') /\
            match pc s st e with
            | Some (Some (cb, tr0, st0)) => tr = tr0 /\ st' = st0 /\ forall a, den s' r a = true <-> agrees s a cb
            | Some None => s' = s /\ r = e /\ tr = [] /\ st' = st
            | None => False
            end).
  { destruct (pc_total s st e B G) as [[[[cb tr0] st0]|] Ep]; rewrite Ep.
    - destruct (pdd_same_cube s st e cb tr0 st0 B G Ep) as [s1 [r1 [P [_ [_ [_ D1]]]]]].
      exists s1, r1, tr0, st0. auto.
    - exists s, e, [], st. auto. }
  destruct H as [s1 [r1 [tr1 [st1 [P M]]]]].
  destruct (pdd_implicant s st e s1 r1 tr1 st1 B G P) as [B1 [X1 [G1 [Hi Hf]]]].
  exists s1, r1, tr1, st1. unfold dd_spec. auto 8.
Qed.

End DdU.

Section Top.
Variable St : Type.
Variable choice : St -> nat -> edge -> bool * St.

Lemma dd_u_ok_bdd : forall s st e, BddOK s -> good_bdd s e ->
  exists s' r tr st', pick_cube_dd_bdd St choice s st e = Some (s', r, tr, st') /\
    BddOK s' /\ extends s s' /\ good_bdd s' r /\
    dd_spec den_bdd (pick_cube_bdd St choice s st e) s st e s' st' r tr.
Proof.
  exact (dd_u_ok St BddOK good_bdd den_bdd _ _ (pick_cube_bdd_total St choice) (pick_dd_bdd_same_cube St choice)
           (pick_dd_bdd_false St choice) (pick_dd_bdd_implicant St choice)).
Qed.

Lemma dd_u_ok_bcdd : forall s st e, BcddOK s -> good_bcdd s e ->
  exists s' r tr st', pick_cube_dd_bcdd St choice s st e = Some (s', r, tr, st') /\
    BcddOK s' /\ extends s s' /\ good_bcdd s' r /\
    dd_spec den_bcdd (pick_cube_bcdd St choice s st e) s st e s' st' r tr.
Proof.
  exact (dd_u_ok St BcddOK good_bcdd den_bcdd _ _ (pick_cube_bcdd_total St choice) (pick_dd_bcdd_same_cube St choice)
           (pick_dd_bcdd_false St choice) (pick_dd_bcdd_implicant St choice)).
Qed.

Lemma dd_u_ok_z : forall s st e, PickZbdd.ZbddOK s -> good_z s e ->
  exists s' r tr st', pick_cube_dd_z St choice s st e = Some (s', r, tr, st') /\
    PickZbdd.ZbddOK s' /\ extends s s' /\ good_z s' r /\
    dd_spec den_z (pick_cube_z St choice s st e) s st e s' st' r tr.
Proof.
  exact (dd_u_ok St PickZbdd.ZbddOK good_z den_z _ _ (pick_cube_z_total St choice) (pick_dd_z_same_cube St choice)
           (fun s st e _ _ => pick_dd_z_false St choice s st e) (pick_dd_z_implicant St choice)).
Qed.

End Top.

(** [pick_cube_dd_set] of the three kinds is total when the literal set is a cube *)
Lemma set_u_ok_bdd : forall s e set L, BddOK s -> good_bdd s e -> good_bdd s set ->
  cube_lits view_plain (S (nlevels s)) s set = Some L ->
  exists s' r tr, pick_cube_dd_set_bdd s e set = Some (s', r, tr) /\
    BddOK s' /\ extends s s' /\ good_bdd s' r /\ set_spec view_plain good_bdd den_bdd s e s' r tr L.
Proof.
  intros s e set L B G Gs El.
  pose proof (pick_dd_set_bdd_eq s e set L B G Gs El) as Eq.
  destruct (dd_u_ok_bdd unit (mask_choice (lit_pol L)) s tt e B G) as [s1 [r1 [tr1 [[] [P _]]]]].
  rewrite P in Eq. cbn [drop_st] in Eq.
  destruct (pick_dd_set_bdd_ok s e set L s1 r1 tr1 B G Gs El Eq) as [B1 [X1 [G1 V]]].
  exists s1, r1, tr1. auto.
Qed.

Lemma set_u_ok_bcdd : forall s e set L, BcddOK s -> good_bcdd s e -> good_bcdd s set ->
  cube_lits view_bcdd (S (nlevels s)) s set = Some L ->
  exists s' r tr, pick_cube_dd_set_bcdd s e set = Some (s', r, tr) /\
    BcddOK s' /\ extends s s' /\ good_bcdd s' r /\ set_spec view_bcdd good_bcdd den_bcdd s e s' r tr L.
Proof.
  intros s e set L B G Gs El.
  pose proof (pick_dd_set_bcdd_eq s e set L B G Gs El) as Eq.
  destruct (dd_u_ok_bcdd unit (mask_choice (lit_pol L)) s tt e B G) as [s1 [r1 [tr1 [[] [P _]]]]].
  rewrite P in Eq. cbn [drop_st] in Eq.
  destruct (pick_dd_set_bcdd_ok s e set L s1 r1 tr1 B G Gs El Eq) as [B1 [X1 [G1 V]]].
  exists s1, r1, tr1. auto.
Qed.

Lemma set_u_ok_z : forall s e set L, PickZbdd.ZbddOK s -> good_z s e -> good_z s set ->
  cube_lits_z (S (nlevels s)) s set = Some L ->
  exists s' r tr, pick_cube_dd_set_z s e set = Some (s', r, tr) /\
    PickZbdd.ZbddOK s' /\ extends s s' /\ good_z s' r /\ set_spec_z s e s' r tr L.
Proof.
  intros s e set L B G Gs El. destruct (is_false view_plain s e) eqn:F.
  - exists s, e, []. split; [apply (pick_dd_set_z_false s e set F)|]. split; [exact B|].
    split; [apply extends_refl|]. split; [exact G|]. split; [auto|]. split; [auto|]. intros F'. congruence.
  - destruct (pick_dd_set_z_ok s e set L B G Gs El F) as [s1 [r1 [tr1 [P [B1 [X1 [G1 [Hd [Hi [Hex Hr]]]]]]]]]].
    exists s1, r1, tr1. split; [exact P|]. split; [exact B1|]. split; [exact X1|]. split; [exact G1|].
    split; [exact Hi|]. split; [intros F'; congruence|]. auto.
Qed.

(** the cube's literal list is a function of the literal set *)
Lemma pcube_fun : forall kind s set L L', pkcube kind s set L -> pkcube kind s set L' -> L' = L.
Proof. intros [] s set L L' E E'; unfold pkcube in *; congruence. Qed.

(** the invariant and a valid edge, as the manager-level invariant / result
    predicate of [res_safe] *)
Definition PKInv (kind : pkind) {St : Type} (s : snap) (st : St) : Prop := pinv kind s.
Definition PQ (kind : pkind) (s' : snap) (r : edge * list step) : Prop := pgood kind s' (fst r).

(** the unbounded run for the two entry points of the three kinds at once *)
Lemma prun_u_ok : forall St choice kind s (st : St) k, pinv kind s -> pcall_ok kind s k ->
  exists su stu ru, prun_u St choice kind s st k = Some (su, stu, ru) /\
    pinv kind su /\ extends s su /\ pgood kind su (fst ru) /\
    pcall_spec St choice kind s st k su stu ru.
Proof.
  intros St choice kind s st [e|e set] B Hk; unfold pcall_ok in Hk.
  - assert (H : exists s1 r1 tr1 st1, prun_u St choice kind s st (PKDd e) = Some (s1, st1, (r1, tr1)) /\
              pinv kind s1 /\ extends s s1 /\ pgood kind s1 r1 /\
              dd_spec (pden kind) (ppick_cube St choice kind s st e) s st e s1 st1 r1 tr1).
    { destruct kind; unfold pinv, pgood, prun_u in *.
      - destruct (dd_u_ok_bdd St choice s st e B Hk) as [s1 [r1 [tr1 [st1 [P R]]]]].
        exists s1, r1, tr1, st1. rewrite P. auto.
      - destruct (dd_u_ok_bcdd St choice s st e (proj1 (bcok_iff s) B) Hk) as [s1 [r1 [tr1 [st1 [P [B1 R]]]]]].
        exists s1, r1, tr1, st1. rewrite P. apply bcok_iff in B1. auto.
      - destruct (dd_u_ok_z St choice s st e (proj1 (zok_iff s) B) Hk) as [s1 [r1 [tr1 [st1 [P [B1 R]]]]]].
        exists s1, r1, tr1, st1. rewrite P. apply zok_iff in B1. auto. }
    destruct H as [s1 [r1 [tr1 [st1 H]]]]. exists s1, st1, (r1, tr1). exact H.
  - destruct Hk as [G [Gs [L El]]].
    assert (H : exists s1 r1 tr1, prun_u St choice kind s st (PKSet e set) = Some (s1, st, (r1, tr1)) /\
              pinv kind s1 /\ extends s s1 /\ pgood kind s1 r1 /\ pset_spec kind s e s1 r1 tr1 L).
    { destruct kind; unfold pinv, pgood, pkcube, prun_u in *.
      - destruct (set_u_ok_bdd s e set L B G Gs El) as [s1 [r1 [tr1 [P R]]]].
        exists s1, r1, tr1. rewrite P. auto.
      - destruct (set_u_ok_bcdd s e set L (proj1 (bcok_iff s) B) G Gs El) as [s1 [r1 [tr1 [P [B1 R]]]]].
        exists s1, r1, tr1. rewrite P. apply bcok_iff in B1. auto.
      - destruct (set_u_ok_z s e set L (proj1 (zok_iff s) B) G Gs El) as [s1 [r1 [tr1 [P [B1 R]]]]].
        exists s1, r1, tr1. rewrite P. apply zok_iff in B1. auto. }
    destruct H as [s1 [r1 [tr1 [P [B1 [X1 [G1 V]]]]]]]. exists s1, st, (r1, tr1).
    split; [exact P|]. split; [exact B1|]. split; [exact X1|]. split; [exact G1|].
    split; [reflexivity|]. intros L' El'. rewrite (pcube_fun kind s set L L' El El'). exact V.
Qed.

Lemma res_safe_map : forall C R (Inv Inv' : snap -> C -> Prop) (Q Q' : snap -> R -> Prop) s (r : gres C R),
  res_safe Inv extends Q s r -> (forall s0 c, Inv s0 c -> Inv' s0 c) -> (forall s0 x, Q s0 x -> Q' s0 x) ->
  res_safe Inv' extends Q' s r.
Proof.
  intros C R Inv Inv' Q Q' s [s' c' x|s' c'|] H HI HQ; simpl in *; [|destruct H; auto|exact H].
  destruct H as [A [B D]]. auto.
Qed.

(** the safe-run fact for the two entry points of the three kinds at once *)
Lemma prun_rs : forall St choice kind cap s (st : St) k, pinv kind s -> pcall_ok kind s k ->
  res_safe (@PKInv kind St) extends (PQ kind) s (prun_c St choice kind cap s st k).
Proof.
  intros St choice kind cap s st k B Hk.
  destruct kind; unfold pinv, pcall_ok, pgood, pkcube in *.
  - destruct k as [e|e set]; [|destruct Hk as [G [Gs [L El]]]].
    + exact (pick_cube_dd_c_rs view_plain BddOK good_bdd den_bdd bdd_OK_WF bdd_view_err bdd_view_term
               bdd_view_node bdd_den_indep add_lit_bdd add_lit_bdd_ok cap (add_lit_bdd_cap cap)
               (add_lit_bdd_rel cap) St choice s st e B Hk).
    + exact (pick_cube_dd_set_c_rs view_plain BddOK good_bdd den_bdd bdd_OK_WF bdd_view_err bdd_view_term
               bdd_view_node bdd_den_indep add_lit_bdd add_lit_bdd_ok cap (add_lit_bdd_cap cap)
               (add_lit_bdd_rel cap) St s st e set L B G Gs El).
  - apply bcok_iff in B.
    apply (res_safe_map St _ (@PInv BcddOK St) _ (Qgood good_bcdd));
      [|intros s0 c H; apply bcok_iff; exact H|auto].
    destruct k as [e|e set]; [|destruct Hk as [G [Gs [L El]]]].
    + exact (pick_cube_dd_c_rs view_bcdd BcddOK good_bcdd den_bcdd bcdd_OK_WF bcdd_view_err bcdd_view_term
               bcdd_view_node bcdd_den_indep add_lit_bcdd add_lit_bcdd_ok cap (add_lit_bcdd_cap cap)
               (add_lit_bcdd_rel cap) St choice s st e B Hk).
    + exact (pick_cube_dd_set_c_rs view_bcdd BcddOK good_bcdd den_bcdd bcdd_OK_WF bcdd_view_err bcdd_view_term
               bcdd_view_node bcdd_den_indep add_lit_bcdd add_lit_bcdd_ok cap (add_lit_bcdd_cap cap)
               (add_lit_bcdd_rel cap) St s st e set L B G Gs El).
  - apply zok_iff in B.
    apply (res_safe_map St _ (@ZPInv St) _ Qgood_z); [|intros s0 c H; apply zok_iff; exact H|auto].
    destruct k as [e|e set]; [|destruct Hk as [G [Gs [L El]]]].
    + exact (pick_cube_dd_z_c_rs cap St choice s st e B Hk).
    + exact (pick_cube_dd_set_z_c_rs cap St s st e set L B G Gs El).
Qed.

(** ** The family (Mgr/OomFamily.v): no recursor; the state of the choice function
    is the state of the run *)

Definition prun_p St choice kind (cap : nat) (_ : unit) := prun_c St choice kind cap.
Definition ppre kind {St : Type} (s : snap) (_ : St) (k : pcall) : Prop := pinv kind s /\ pcall_ok kind s k.

Lemma pfam_sim : forall St choice kind cap p s (st : St) k,
  sim St no_m2 cap 1 s (prun_p St choice kind cap p s st k) (prun_u St choice kind s st k).
Proof. intros. apply prun_sim. Qed.

Lemma pfam_rs : forall St choice kind cap p s (st : St) k, ppre kind s st k ->
  res_safe (@PKInv kind St) extends (PQ kind) s (prun_p St choice kind cap p s st k).
Proof. intros St choice kind cap p s st k [B Hk]. apply prun_rs; assumption. Qed.

Lemma pfam_u_ok : forall St choice kind s (st : St) k, ppre kind s st k ->
  exists su stu ru, prun_u St choice kind s st k = Some (su, stu, ru) /\
    (pinv kind su /\ pgood kind su (fst ru) /\ pcall_spec St choice kind s st k su stu ru).
Proof.
  intros St choice kind s st k [B Hk].
  destruct (prun_u_ok St choice kind s st k B Hk) as [su [stu [ru [E [Bu [_ [Gu V]]]]]]].
  exists su, stu, ru. auto.
Qed.

Lemma pfam_failed : forall St kind cap s (st : St) k s' st', ppre kind s st k ->
  failed1 St (@PKInv kind St) extends cap s s' st' -> pfailed_ok kind cap s s'.
Proof.
  intros St kind cap s st k s' st' [B _] [B' [X [G F]]].
  split; [exact B'|]. split; [exact X|]. split; [apply (pextends_intact kind s s' B X)|]. auto.
Qed.

(** ** The statements *)

(** *** never a wrong edge: a result - table, final state of the choice function,
    edge, trace - is literally the result of the unbounded run *)
Theorem pick_never_wrong : forall St choice kind cap s (st : St) k s' st' r,
  prun_c St choice kind cap s st k = GOk s' st' r ->
  prun_u St choice kind s st k = Some (s', st', r).
Proof.
  intros St choice kind cap.
  apply (fam_never_wrong (pfam_sim St choice kind) cap tt).
Qed.

(** *** retry: when the table of the unbounded run fits, the bounded run succeeds
    with exactly that result *)
Theorem pick_retry : forall St choice kind cap s (st : St) k su stu ru,
  prun_u St choice kind s st k = Some (su, stu, ru) -> node_count su <= cap ->
  prun_c St choice kind cap s st k = GOk su stu ru.
Proof.
  intros St choice kind cap.
  apply (fam_retry (pfam_sim St choice kind) cap tt).
Qed.

(** *** monotone in the capacity *)
Theorem pick_monotone : forall St choice kind cap cap' s (st : St) k s' st' r, cap <= cap' ->
  prun_c St choice kind cap s st k = GOk s' st' r ->
  prun_c St choice kind cap' s st k = GOk s' st' r.
Proof.
  intros St choice kind cap cap'.
  apply (fam_monotone (pfam_sim St choice kind) cap cap' tt tt).
Qed.

(** *** a result is a valid edge with the C13 specification, in a table in which
    everything that existed before is intact *)
Theorem pick_never_wrong_sem : forall St choice kind cap s (st : St) k s' st' r,
  pinv kind s -> pcall_ok kind s k ->
  prun_c St choice kind cap s st k = GOk s' st' r ->
  pinv kind s' /\ extends s s' /\ pintact kind s s' /\ pgood kind s' (fst r) /\
  pcall_spec St choice kind s st k s' st' r.
Proof.
  intros St choice kind cap s st k s' st' r B Hk E.
  destruct (fam_never_wrong_sem (pfam_sim St choice kind) (pfam_rs St choice kind) (pfam_u_ok St choice kind)
              cap tt s st k s' st' r (conj B Hk) E) as [B' [X [G [_ [_ V]]]]].
  split; [exact B'|]. split; [exact X|]. split; [apply (pextends_intact kind s s' B X)|]. split; assumption.
Qed.

(** *** the state after a failure: [st'] is the state of the choice function at
    the point of failure (all its calls precede the first allocation) *)
Theorem pick_safe : forall St choice kind cap s (st : St) k s' st',
  pinv kind s -> pcall_ok kind s k ->
  prun_c St choice kind cap s st k = GOom s' st' ->
  pinv kind s' /\ extends s s' /\ pintact kind s s' /\
  node_count s <= node_count s' /\ cap <= node_count s'.
Proof.
  intros St choice kind cap s st k s' st' B Hk.
  apply (fam_safe (pfam_sim St choice kind) (pfam_rs St choice kind) (pfam_failed St kind)
           cap tt s st k s' st' (conj B Hk)).
Qed.

(** *** no panic, no divergence *)
Theorem pick_no_panic : forall St choice kind cap s (st : St) k,
  pinv kind s -> pcall_ok kind s k ->
  prun_c St choice kind cap s st k <> GStuck.
Proof.
  intros St choice kind cap s st k B Hk.
  apply (fam_no_panic (pfam_rs St choice kind) cap tt s st k (conj B Hk)).
Qed.

(** *** exactness: the bounded run delivers the result of the unbounded run exactly
    when its table fits, and fails - leaving a safe table, store full - otherwise *)
Theorem pick_exact : forall St choice kind cap s (st : St) k,
  pinv kind s -> pcall_ok kind s k ->
  exists su stu ru, prun_u St choice kind s st k = Some (su, stu, ru) /\
    pinv kind su /\ pgood kind su (fst ru) /\ pcall_spec St choice kind s st k su stu ru /\
    (node_count su <= Nat.max cap (node_count s) ->
       prun_c St choice kind cap s st k = GOk su stu ru) /\
    (Nat.max cap (node_count s) < node_count su ->
       exists s' st', prun_c St choice kind cap s st k = GOom s' st' /\
         pinv kind s' /\ extends s s' /\ pintact kind s s' /\
         node_count s <= node_count s' /\ cap <= node_count s').
Proof.
  intros St choice kind cap s st k B Hk.
  destruct (fam_exact (pfam_sim St choice kind) (pfam_rs St choice kind) (pfam_u_ok St choice kind) (pfam_failed St kind)
              cap tt s st k (conj B Hk))
    as [su [stu [ru [Eu [[Bu [Gu V]] X]]]]].
  exists su, stu, ru. split; [exact Eu|]. split; [exact Bu|]. split; [exact Gu|]. split; [exact V | exact X].
Qed.

(** *** what "intact" means for the owner of a handle (the three records spelled out) *)
Theorem pick_intact_meaning : forall kind s s', pintact kind s s' ->
  s_handles s' = s_handles s /\
  s_v2l s' = s_v2l s /\ s_l2v s' = s_l2v s /\ s_terms s' = s_terms s /\
  (forall id nd, find_node s id = Some nd -> find_node s' id = Some nd) /\
  (forall h, In h (s_handles s) -> forall c0, sem_edge s' (snd h) c0 = sem_edge s (snd h) c0) /\
  (forall id, find_node s id = None -> ~ reachable s' (handle_refs s') (RN id)) /\
  (forall r, reachable s' (handle_refs s') r <-> reachable s (handle_refs s) r).
Proof.
  intros [] s s' I; unfold pintact in I.
  - destruct I as [A [B1 [B2 B3]] C0 D E0 F G]. repeat (split; [assumption|]). assumption.
  - destruct (intact_c_elim s s' I) as [A [B1 [B2 [B3 [C0 [_ [E0 [F G]]]]]]]].
    repeat (split; [assumption|]). assumption.
  - destruct (intact_z_elim s s' I) as [A [B1 [B2 [B3 [C0 [_ [E0 [F G]]]]]]]].
    repeat (split; [assumption|]). assumption.
Qed.

(** ** The instances the correspondence run evaluates (choice = a table indexed
    by level, no state): the hypotheses are the two extracted checkers *)

Theorem pick_nc_exact : forall kind cap s m k, pinv_b kind s = true -> pcall_ok_b kind s k = true ->
  prun_c unit (mask_choice m) kind cap s tt k <> GStuck /\
  exists su ru, prun_u unit (mask_choice m) kind s tt k = Some (su, tt, ru) /\
    pinv_b kind su = true /\ pedge_ok_b kind su (fst ru) = true /\
    pcall_spec unit (mask_choice m) kind s tt k su tt ru /\
    (node_count su <= Nat.max cap (node_count s) ->
       prun_c unit (mask_choice m) kind cap s tt k = GOk su tt ru) /\
    (Nat.max cap (node_count s) < node_count su ->
       exists s', prun_c unit (mask_choice m) kind cap s tt k = GOom s' tt /\
         pinv_b kind s' = true /\ extends s s' /\ pintact kind s s' /\
         node_count s <= node_count s' /\ cap <= node_count s').
Proof.
  intros kind cap s m k Hb Hk. apply pinv_b_spec in Hb. apply pcall_ok_b_spec in Hk.
  split; [apply (pick_no_panic unit (mask_choice m) kind cap s tt k Hb Hk)|].
  destruct (pick_exact unit (mask_choice m) kind cap s tt k Hb Hk) as [su [[] [ru [E [Bu [Gu [V [A B]]]]]]]].
  exists su, ru. split; [exact E|]. split; [apply pinv_b_spec; exact Bu|].
  split; [apply pedge_ok_b_spec; exact Gu|]. split; [exact V|]. split; [exact A|].
  intros Hbig. destruct (B Hbig) as [s' [[] [E' [B' R]]]].
  exists s'. split; [exact E'|]. split; [apply pinv_b_spec; exact B' | exact R].
Qed.

Lemma pick_nc_eq : forall kind cap s m e set,
  pick_dd_nc kind cap s m e = prun_c unit (mask_choice m) kind cap s tt (PKDd e) /\
  pick_dd_set_nc kind cap s e set = prun_c unit (mask_choice (fun _ => false)) kind cap s tt (PKSet e set) /\
  pick_dd_unc kind s m e = prun_u unit (mask_choice m) kind s tt (PKDd e) /\
  pick_dd_set_unc kind s e set = prun_u unit (mask_choice (fun _ => false)) kind s tt (PKSet e set).
Proof. intros. repeat split. Qed.
