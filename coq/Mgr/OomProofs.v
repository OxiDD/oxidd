(** * Out-of-memory behaviour of the BDD apply algorithms (Mgr/Oom.v), part 1

    Facts that need no invariant (they hold for every table, cache and fuel):

    - [*_sim] = [*_refines] /\ [*_fits];
    - [*_refines] ([oom_never_wrong_*], Mgr/OomSafe.v): when the bounded algorithm returns
      [ROk s' c' r], the unbounded algorithm of DD/Apply.v returns literally
      [Some (s', c', r)], and at most [cap] nodes are stored unless nothing
      was inserted; when it returns [ROom s' c'] the store is full
      ([cap <= node_count s']) and no node has disappeared;
    - [*_fits] ([oom_retry_*]): when the unbounded algorithm returns [Some (s', c', r)] and
      the nodes of [s'] fit into the capacity, the bounded algorithm returns
      [ROk s' c' r] (for either recursor);
    - [sim_monotone]: a run that succeeds with capacity [cap] succeeds with the
      same result for every capacity [cap' >= cap] and either recursor.

    The invariant-dependent part (the table after a failure) is in
    Mgr/OomSafe.v. *)

From Coq Require Import List NArith PArith Bool Arith Lia FMapPositive FMapFacts.
From OxiVerif Require Import DD.Table DD.TableProofs DD.Canon DD.Sem DD.Build DD.BuildProofs
  DD.Apply DD.ApplyProofs Mgr.Oom.
Import ListNotations.

Module PMP := FMapFacts.WProperties_fun PositiveMap.E PositiveMap.

(** ** Node counts *)

Lemma node_count_insert : forall s id nd, find_node s id = None ->
  node_count (set_nodes s (PositiveMap.add id nd (s_nodes s))) = S (node_count s).
Proof.
  intros s id nd E. unfold node_count. simpl.
  apply (PMP.cardinal_2 (x := id) (e := nd)).
  - apply PMP.F.not_find_in_iff. exact E.
  - intros y. reflexivity.
Qed.

Lemma get_or_insert_count : forall s lvl ch s' e, get_or_insert s lvl ch = (s', e) ->
  (find_dup s lvl ch <> None /\ s' = s) \/
  (find_dup s lvl ch = None /\ node_count s' = S (node_count s)).
Proof.
  intros s lvl ch s' e. unfold get_or_insert.
  destruct (find_dup s lvl ch) as [id|] eqn:Ed; intros Heq; inversion Heq; subst.
  - left. split; [discriminate | reflexivity].
  - right. split; [reflexivity|]. apply node_count_insert. apply fresh_id_free.
Qed.

(** what the bounded insertion does, relative to the unbounded one *)
Lemma get_or_insert_cap_some : forall cap s lvl ch x, get_or_insert_cap cap s lvl ch = Some x ->
  get_or_insert s lvl ch = x /\
  node_count s <= node_count (fst x) <= Nat.max cap (node_count s).
Proof.
  intros cap s lvl ch [s' e]. unfold get_or_insert_cap.
  destruct (find_dup s lvl ch) as [id|] eqn:Ed.
  - intros Heq. inversion Heq; subst. unfold get_or_insert. rewrite Ed. cbn [fst]. split; [reflexivity | lia].
  - destruct (Nat.ltb_spec (node_count s) cap) as [Hlt|Hge]; [|discriminate].
    intros Heq. inversion Heq as [Hx]. split; [reflexivity|]. rewrite Hx. cbn [fst].
    destruct (get_or_insert_count s lvl ch s' e Hx) as [[A _]|[_ B]]; [congruence | lia].
Qed.

Lemma get_or_insert_cap_none : forall cap s lvl ch, get_or_insert_cap cap s lvl ch = None ->
  find_dup s lvl ch = None /\ cap <= node_count s.
Proof.
  intros cap s lvl ch. unfold get_or_insert_cap.
  destruct (find_dup s lvl ch) as [id|]; [discriminate|].
  destruct (Nat.ltb_spec (node_count s) cap) as [Hlt|Hge]; [discriminate | auto].
Qed.

(** the converse: the unbounded insertion result is delivered whenever it fits *)
Lemma get_or_insert_cap_fits : forall cap s lvl ch s' e, get_or_insert s lvl ch = (s', e) ->
  node_count s <= node_count s' /\
  (node_count s' <= Nat.max cap (node_count s) -> get_or_insert_cap cap s lvl ch = Some (s', e)).
Proof.
  intros cap s lvl ch s' e Hx. unfold get_or_insert_cap.
  destruct (get_or_insert_count s lvl ch s' e Hx) as [[A ->]|[A B]].
  - split; [lia|]. intros _. unfold get_or_insert in Hx.
    destruct (find_dup s lvl ch) as [id|]; [|congruence]. inversion Hx. reflexivity.
  - split; [lia|]. intros Hfit. rewrite A.
    destruct (Nat.ltb_spec (node_count s) cap) as [Hlt|Hge]; [rewrite Hx; reflexivity | lia].
Qed.

Lemma mk_node_cap_some : forall cap s lvl ch x, mk_node_cap cap s lvl ch = Some x ->
  mk_node s lvl ch = x /\
  node_count s <= node_count (fst x) <= Nat.max cap (node_count s).
Proof.
  intros cap s lvl ch x. unfold mk_node_cap, mk_node.
  destruct ch as [|c0 rest]; [intros Heq; inversion Heq; cbn [fst]; split; [reflexivity | lia]|].
  destruct (all_equal (c0 :: rest)); [intros Heq; inversion Heq; cbn [fst]; split; [reflexivity | lia]|].
  apply get_or_insert_cap_some.
Qed.

Lemma mk_node_cap_none : forall cap s lvl ch, mk_node_cap cap s lvl ch = None -> cap <= node_count s.
Proof.
  intros cap s lvl ch. unfold mk_node_cap.
  destruct ch as [|c0 rest]; [discriminate|].
  destruct (all_equal (c0 :: rest)); [discriminate|].
  intros Hx. apply (get_or_insert_cap_none cap s lvl _ Hx).
Qed.

Lemma mk_node_cap_fits : forall cap s lvl ch s' e, mk_node s lvl ch = (s', e) ->
  node_count s <= node_count s' /\
  (node_count s' <= Nat.max cap (node_count s) -> mk_node_cap cap s lvl ch = Some (s', e)).
Proof.
  intros cap s lvl ch s' e. unfold mk_node_cap, mk_node.
  destruct ch as [|c0 rest]; [intros Heq; inversion Heq; subst; split; [lia | reflexivity]|].
  destruct (all_equal (c0 :: rest)); [intros Heq; inversion Heq; subst; split; [lia | reflexivity]|].
  apply get_or_insert_cap_fits.
Qed.

(** a success with capacity [cap] is a success with every larger capacity *)
Lemma mk_node_cap_mono : forall cap cap' s lvl ch x, cap <= cap' ->
  mk_node_cap cap s lvl ch = Some x -> mk_node_cap cap' s lvl ch = Some x.
Proof.
  intros cap cap' s lvl ch [s' e] Hle Hx.
  destruct (mk_node_cap_some cap s lvl ch _ Hx) as [Hm Hc]. simpl in Hc.
  apply (proj2 (mk_node_cap_fits cap' s lvl ch s' e Hm)). lia.
Qed.

(** ** Unfolding lemmas *)

Section Bounded.
Variable gt : ref -> ref -> bool.
Variable C : Type.
Variable cget : C -> N -> list ref -> option ref.
Variable cadd : C -> N -> list ref -> ref -> C.

(** the unbounded counterpart of [finish] *)
Definition ufinish (lvl : nat) (code : N) (args : list ref)
  (s2 : snap) (c2 : C) (t e : ref) : option (snap * C * ref) :=
  let '(s3, h) := mk_node s2 lvl [E t; E e] in
  Some (s3, cadd c2 code args (eref h), eref h).

(** the recursive case of the algorithms of DD/Apply.v is convertible to
    [ujoin2 .. .. (ufinish ..)] *)
Definition ujoin2 (u1 : option (snap * C * ref)) (urun2 : snap -> C -> option (snap * C * ref))
  (ufin : snap -> C -> ref -> ref -> option (snap * C * ref)) : option (snap * C * ref) :=
  match u1 with
  | None => None
  | Some (s1, c1, t) =>
    match urun2 s1 c1 with
    | None => None
    | Some (s2, c2, e) => ufin s2 c2 t e
    end
  end.

Section Cap.
Variable cap : nat.
Variable par : nat -> bool.

Lemma apply_not_c_S : forall n s c f,
  apply_not_c C cget cadd cap par (S n) s c f =
  match f with
  | RT _ =>
    match view s f with
    | Some (VT b) =>
      match term_of s (negb b) with Some t => ROk s c (RT t) | None => RStuck end
    | _ => RStuck
    end
  | RN id =>
    match find_node s id with
    | None => RStuck
    | Some nd =>
      match cget c code_not [f] with
      | Some h => ROk s c h
      | None =>
        match nchildren nd with
        | [ft; fe] =>
          join2 (par n) (apply_not_c C cget cadd cap par n s c (eref ft))
                (fun s1 c1 => apply_not_c C cget cadd cap par n s1 c1 (eref fe))
                (finish C cadd cap (nstored nd) code_not [f])
        | _ => RStuck
        end
      end
    end
  end.
Proof. reflexivity. Qed.

Lemma apply_bin_c_S : forall n s c op f g,
  apply_bin_c gt C cget cadd cap par (S n) s c op f g =
  match terminal_bin gt s op f g with
  | TFail => RStuck
  | TDone h => ROk s c h
  | TNot r => apply_not_c C cget cadd cap par (S n) s c r
  | TBin o a b =>
    match cget c (op_code o) [a; b] with
    | Some h => ROk s c h
    | None =>
      match inner s f, inner s g with
      | Some fnode, Some gnode =>
        let lvl := Nat.min (nstored fnode) (nstored gnode) in
        match cof2 f fnode lvl, cof2 g gnode lvl with
        | Some (ft, fe), Some (gt', ge) =>
          join2 (par n) (apply_bin_c gt C cget cadd cap par n s c op ft gt')
                (fun s1 c1 => apply_bin_c gt C cget cadd cap par n s1 c1 op fe ge)
                (finish C cadd cap lvl (op_code o) [a; b])
        | _, _ => RStuck
        end
      | _, _ => RStuck
      end
    end
  end.
Proof. reflexivity. Qed.

Lemma apply_ite_c_S : forall n s c f g h,
  apply_ite_c gt C cget cadd cap par (S n) s c f g h =
    if ref_eqb g h then ROk s c g
    else if ref_eqb f g then apply_bin_c gt C cget cadd cap par (S n) s c OOr f h
    else if ref_eqb f h then apply_bin_c gt C cget cadd cap par (S n) s c OAnd f g
    else
      match view s f with
      | None => RStuck
      | Some (VT b) => ROk s c (if b then g else h)
      | Some VI =>
        match view s g, view s h with
        | Some (VT true), Some VI => apply_bin_c gt C cget cadd cap par (S n) s c OOr f h
        | Some (VT false), Some VI => apply_bin_c gt C cget cadd cap par (S n) s c OImpStrict f h
        | Some VI, Some (VT true) => apply_bin_c gt C cget cadd cap par (S n) s c OImp f g
        | Some VI, Some (VT false) => apply_bin_c gt C cget cadd cap par (S n) s c OAnd f g
        | Some (VT false), Some (VT _) => apply_not_c C cget cadd cap par (S n) s c f
        | Some (VT true), Some (VT _) => ROk s c f
        | Some VI, Some VI =>
          match cget c code_ite [f; g; h] with
          | Some r => ROk s c r
          | None =>
            match inner s f, inner s g, inner s h with
            | Some fnode, Some gnode, Some hnode =>
              let lvl := Nat.min (Nat.min (nstored fnode) (nstored gnode)) (nstored hnode) in
              match cof2 f fnode lvl, cof2 g gnode lvl, cof2 h hnode lvl with
              | Some (ft, fe), Some (gt', ge), Some (ht, he) =>
                join2 (par n) (apply_ite_c gt C cget cadd cap par n s c ft gt' ht)
                      (fun s1 c1 => apply_ite_c gt C cget cadd cap par n s1 c1 fe ge he)
                      (finish C cadd cap lvl code_ite [f; g; h])
              | _, _, _ => RStuck
              end
            | _, _, _ => RStuck
            end
          end
        | _, _ => RStuck
        end
      end.
Proof. reflexivity. Qed.

(** ** Refinement in both directions *)

Definition refines (s : snap) (rb : res C) (ru : option (snap * C * ref)) : Prop :=
  match rb with
  | ROk s' c' r =>
      ru = Some (s', c', r) /\ node_count s <= node_count s' <= Nat.max cap (node_count s)
  | ROom s' c' => node_count s <= node_count s' /\ cap <= node_count s'
  | RStuck => True
  end.

Definition fits (s : snap) (ru : option (snap * C * ref)) (rb : res C) : Prop :=
  match ru with
  | Some (s', c', r) =>
      node_count s <= node_count s' /\
      (node_count s' <= Nat.max cap (node_count s) -> rb = ROk s' c' r)
  | None => True
  end.

Definition sim (s : snap) (rb : res C) (ru : option (snap * C * ref)) : Prop :=
  refines s rb ru /\ fits s ru rb.

Lemma sim_here : forall s c r, sim s (ROk s c r) (Some (s, c, r)).
Proof. intros. split; simpl; split; reflexivity || lia. Qed.

Lemma sim_stuck : forall s, sim s RStuck None.
Proof. intros. split; exact I. Qed.

Lemma sim_ok : forall s rb ru s' c' r, sim s rb ru -> rb = ROk s' c' r -> ru = Some (s', c', r).
Proof. intros s rb ru s' c' r [A _] E. rewrite E in A. apply A. Qed.

Lemma sim_retry : forall s rb su cu r,
  sim s rb (Some (su, cu, r)) -> node_count su <= cap -> rb = ROk su cu r.
Proof. intros s rb su cu r [_ [_ F]] Hfit. apply F. lia. Qed.

Lemma finish_sim : forall lvl code args s2 c2 t e,
  sim s2 (finish C cadd cap lvl code args s2 c2 t e) (ufinish lvl code args s2 c2 t e).
Proof.
  intros lvl code args s2 c2 t e. unfold finish, ufinish.
  destruct (mk_node s2 lvl [E t; E e]) as [s3 h] eqn:Eu.
  destruct (mk_node_cap_fits cap s2 lvl _ s3 h Eu) as [Hc Hf]. split.
  - destruct (mk_node_cap cap s2 lvl [E t; E e]) as [[s3' h']|] eqn:Em.
    + destruct (mk_node_cap_some cap s2 lvl _ _ Em) as [Hm Hb]. rewrite Eu in Hm. inversion Hm; subst.
      split; [reflexivity | exact Hb].
    + split; [lia | apply (mk_node_cap_none cap s2 lvl _ Em)].
  - split; [exact Hc|]. intros Hfit. rewrite (Hf Hfit). reflexivity.
Qed.

Lemma join2_sim : forall p s r1 u1 run2 urun2 fin ufin,
  sim s r1 u1 ->
  (forall s1 c1, sim s1 (run2 s1 c1) (urun2 s1 c1)) ->
  (forall s2 c2 t e, sim s2 (fin s2 c2 t e) (ufin s2 c2 t e)) ->
  sim s (join2 p r1 run2 fin) (ujoin2 u1 urun2 ufin).
Proof.
  intros p s r1 u1 run2 urun2 fin ufin [A1 B1] H2 H3. split.
  - unfold join2, ujoin2. destruct r1 as [s1 c1 t|s1 c1|]; simpl in A1; [| |exact I].
    + destruct A1 as [-> Hc1]. destruct (H2 s1 c1) as [A2 _].
      destruct (run2 s1 c1) as [s2 c2 e|s2 c2|]; simpl in A2 |- *; [|lia|exact I].
      destruct A2 as [-> Hc2]. destruct (H3 s2 c2 t e) as [A3 _].
      destruct (fin s2 c2 t e) as [s3 c3 r|s3 c3|]; simpl in A3 |- *; [|lia|exact I].
      destruct A3 as [-> Hc3]. split; [reflexivity | lia].
    + destruct p; [|exact A1]. destruct (H2 s1 c1) as [A2 _].
      destruct (run2 s1 c1) as [s2 c2 e|s2 c2|]; simpl in A2 |- *; [lia | lia | exact I].
  - unfold ujoin2. destruct u1 as [[[s1 c1] t]|]; [|exact I]. destruct B1 as [Hc1 Hf1].
    destruct (H2 s1 c1) as [_ B2]. destruct (urun2 s1 c1) as [[[s2 c2] e]|]; [|exact I].
    destruct B2 as [Hc2 Hf2].
    destruct (H3 s2 c2 t e) as [_ B3]. destruct (ufin s2 c2 t e) as [[[s3 c3] r]|]; [|exact I].
    destruct B3 as [Hc3 Hf3]. split; [lia|]. intros Hfit.
    unfold join2. rewrite Hf1 by lia. rewrite Hf2 by lia. apply Hf3. lia.
Qed.

Theorem apply_not_sim : forall fuel s c f,
  sim s (apply_not_c C cget cadd cap par fuel s c f) (apply_not C cget cadd fuel s c f).
Proof.
  induction fuel as [|n IH]; intros s c f; [apply sim_stuck|].
  rewrite apply_not_c_S. cbn [apply_not]. destruct f as [t|id].
  - destruct (view s (RT t)) as [[|b]|]; try apply sim_stuck.
    destruct (term_of s (negb b)); [apply sim_here | apply sim_stuck].
  - destruct (find_node s id) as [nd|]; [|apply sim_stuck].
    destruct (cget c code_not [RN id]); [apply sim_here|].
    destruct (nchildren nd) as [|ft [|fe [|x r]]]; try apply sim_stuck.
    apply (join2_sim (par n) s _ _ _ (fun s1 c1 => apply_not C cget cadd n s1 c1 (eref fe)) _
             (ufinish (nstored nd) code_not [RN id]));
      [apply IH | intros; apply IH | intros; apply finish_sim].
Qed.

Theorem apply_bin_sim : forall fuel s c op f g,
  sim s (apply_bin_c gt C cget cadd cap par fuel s c op f g)
        (apply_bin gt C cget cadd fuel s c op f g).
Proof.
  induction fuel as [|n IH]; intros s c op f g; [apply sim_stuck|].
  rewrite apply_bin_c_S. cbn [apply_bin].
  destruct (terminal_bin gt s op f g) as [r|r|o a b|]; [apply sim_here | apply apply_not_sim | | apply sim_stuck].
  destruct (cget c (op_code o) [a; b]); [apply sim_here|].
  destruct (inner s f) as [fnode|]; [|apply sim_stuck]. destruct (inner s g) as [gnode|]; [|apply sim_stuck].
  cbv zeta. set (lvl := Nat.min (nstored fnode) (nstored gnode)).
  destruct (cof2 f fnode lvl) as [[ft fe]|]; [|apply sim_stuck].
  destruct (cof2 g gnode lvl) as [[gt' ge]|]; [|apply sim_stuck].
  apply (join2_sim (par n) s _ _ _ (fun s1 c1 => apply_bin gt C cget cadd n s1 c1 op fe ge) _
           (ufinish lvl (op_code o) [a; b]));
    [apply IH | intros; apply IH | intros; apply finish_sim].
Qed.

Theorem apply_ite_sim : forall fuel s c f g h,
  sim s (apply_ite_c gt C cget cadd cap par fuel s c f g h)
        (apply_ite gt C cget cadd fuel s c f g h).
Proof.
  induction fuel as [|n IH]; intros s c f g h; [apply sim_stuck|].
  rewrite apply_ite_c_S. cbn [apply_ite].
  destruct (ref_eqb g h); [apply sim_here|].
  destruct (ref_eqb f g); [apply apply_bin_sim|].
  destruct (ref_eqb f h); [apply apply_bin_sim|].
  destruct (view s f) as [[|bf]|]; [| apply sim_here | apply sim_stuck].
  destruct (view s g) as [[|[]]|]; destruct (view s h) as [[|[]]|];
    try apply sim_stuck; try apply apply_bin_sim; try apply apply_not_sim; try apply sim_here.
  destruct (cget c code_ite [f; g; h]); [apply sim_here|].
  destruct (inner s f) as [fnode|]; [|apply sim_stuck]. destruct (inner s g) as [gnode|]; [|apply sim_stuck].
  destruct (inner s h) as [hnode|]; [|apply sim_stuck].
  cbv zeta. set (lvl := Nat.min (Nat.min (nstored fnode) (nstored gnode)) (nstored hnode)).
  destruct (cof2 f fnode lvl) as [[ft fe]|]; [|apply sim_stuck].
  destruct (cof2 g gnode lvl) as [[gt' ge]|]; [|apply sim_stuck].
  destruct (cof2 h hnode lvl) as [[ht he]|]; [|apply sim_stuck].
  apply (join2_sim (par n) s _ _ _ (fun s1 c1 => apply_ite gt C cget cadd n s1 c1 fe ge he) _
           (ufinish lvl code_ite [f; g; h]));
    [apply IH | intros; apply IH | intros; apply finish_sim].
Qed.

Theorem apply_not_refines : forall fuel s c f,
  refines s (apply_not_c C cget cadd cap par fuel s c f) (apply_not C cget cadd fuel s c f).
Proof. intros. apply (proj1 (apply_not_sim fuel s c f)). Qed.

Theorem apply_bin_refines : forall fuel s c op f g,
  refines s (apply_bin_c gt C cget cadd cap par fuel s c op f g)
            (apply_bin gt C cget cadd fuel s c op f g).
Proof. intros. apply (proj1 (apply_bin_sim fuel s c op f g)). Qed.

Theorem apply_ite_refines : forall fuel s c f g h,
  refines s (apply_ite_c gt C cget cadd cap par fuel s c f g h)
            (apply_ite gt C cget cadd fuel s c f g h).
Proof. intros. apply (proj1 (apply_ite_sim fuel s c f g h)). Qed.

Theorem apply_not_fits : forall fuel s c f,
  fits s (apply_not C cget cadd fuel s c f) (apply_not_c C cget cadd cap par fuel s c f).
Proof. intros. apply (proj2 (apply_not_sim fuel s c f)). Qed.

Theorem apply_bin_fits : forall fuel s c op f g,
  fits s (apply_bin gt C cget cadd fuel s c op f g)
         (apply_bin_c gt C cget cadd cap par fuel s c op f g).
Proof. intros. apply (proj2 (apply_bin_sim fuel s c op f g)). Qed.

Theorem apply_ite_fits : forall fuel s c f g h,
  fits s (apply_ite gt C cget cadd fuel s c f g h)
         (apply_ite_c gt C cget cadd cap par fuel s c f g h).
Proof. intros. apply (proj2 (apply_ite_sim fuel s c f g h)). Qed.

End Cap.
End Bounded.

Lemma sim_monotone : forall C cap cap' s (rb rb' : res C) ru s' c' r, cap <= cap' ->
  sim C cap s rb ru -> sim C cap' s rb' ru -> rb = ROk s' c' r -> rb' = ROk s' c' r.
Proof.
  intros C cap cap' s rb rb' ru s' c' r Hle [A _] [_ B] E.
  rewrite E in A. destruct A as [-> Hc]. apply B. lia.
Qed.
