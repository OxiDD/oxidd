(** * Out-of-memory behaviour of the BDD apply algorithms (Mgr/Oom.v), part 2

    Under the invariant of the C02 theorems ([BddOK], [CacheOK], operands are
    valid references, standard fuel):

    - [apply_*_c_safe]: the bounded algorithms never get stuck (no [unwrap]
      panics, the fuel suffices), and whatever they return - result or
      out-of-memory - the table they leave is a well-formed extension of the
      table they started from, with a correct cache;
    - [intact]: what "extension" means for the user: same handle list, every
      old reference still valid with the same meaning under every fuel, no
      node that was added is reachable from a handle, the reachable part is
      unchanged ([extends_intact]);
    - [oom_safe_*], [oom_no_panic_*], [oom_never_wrong_*], [oom_exact_*],
      [oom_retry_*], [oom_monotone_*]: the C14 statements. *)

From Coq Require Import List NArith PArith Bool Arith Lia FMapPositive.
From OxiVerif Require Import DD.Table DD.TableProofs DD.Canon DD.Sem DD.Build DD.BuildProofs
  DD.Apply DD.ApplyProofs DD.ApplyEvalProofs Mgr.Oom Mgr.OomProofs.
From OxiVerif Require Mgr.OomGenProofs.
Import ListNotations.

(** ** What an extension preserves *)

(** the state [s'] left by an operation that started in [s] (in particular by
    one that failed) is intact for every owner of a handle *)
Record intact (s s' : snap) : Prop := mkIntact {
  (* the handle list is unchanged *)
  in_handles : s_handles s' = s_handles s;
  (* same variables and order, same terminals *)
  in_order : s_v2l s' = s_v2l s /\ s_l2v s' = s_l2v s /\ s_terms s' = s_terms s;
  (* every stored node is still stored, unchanged *)
  in_nodes : forall id nd, find_node s id = Some nd -> find_node s' id = Some nd;
  (* every valid reference stays valid and means the same function *)
  in_sem : forall r, ref_ok s r -> ref_ok s' r /\ forall k c0, semk s' k r c0 = semk s k r c0;
  (* every handle has the same value under every assignment *)
  in_handle_sem : forall h, In h (s_handles s) -> forall c0, sem_edge s' (snd h) c0 = sem_edge s (snd h) c0;
  (* the nodes that were added are garbage: unreachable from every handle *)
  in_garbage : forall id, find_node s id = None -> ~ reachable s' (handle_refs s') (RN id);
  (* the live part of the diagram is exactly what it was *)
  in_live : forall r, reachable s' (handle_refs s') r <-> reachable s (handle_refs s) r
}.

Theorem extends_intact : forall s s', BddOK s -> extends s s' -> intact s s'.
Proof.
  intros s s' B X. pose proof (bo_wf s B) as H.
  destruct (OomGenProofs.next_intact0 s s' H (OomGenProofs.next_of_extends s s' X))
    as [Hh [Hv Hl] Hn Hg Hlive].
  constructor; try assumption.
  - split; [exact Hv|]. split; [exact Hl | apply (ext_terms _ _ X)].
  - intros r Hr. split; [apply (ext_ref_ok _ _ _ X Hr)|].
    intros k c0. apply (semk_extends s s' H X k r c0 Hr).
  - intros h Hh' c0. unfold sem_edge. rewrite (ext_kind _ _ X), (bo_kind s B), (ext_nlevels _ _ X).
    apply (semk_extends s s' H X). apply (wf_handles s H h Hh').
Qed.

Section Safe.
Variable gt : ref -> ref -> bool.
Variable C : Type.
Variable cget : C -> N -> list ref -> option ref.
Variable cadd : C -> N -> list ref -> ref -> C.
Hypothesis Hlossy : lossy cget cadd.
Variable cap : nat.
Variable par : nat -> bool.

Definition res_safe (s : snap) (r : res C) : Prop :=
  match r with
  | ROk s' c' _ => BddOK s' /\ extends s s' /\ CacheOK cget s' c'
  | ROom s' c' => BddOK s' /\ extends s s' /\ CacheOK cget s' c'
  | RStuck => False
  end.

(** the part of [res_safe] that is proved by walking through the algorithm
    (the [ROk] case follows from the refinement and the C02 theorems) *)
Definition fail_safe (s : snap) (r : res C) : Prop :=
  match r with
  | ROk _ _ _ => True
  | ROom s' c' => BddOK s' /\ extends s s' /\ CacheOK cget s' c'
  | RStuck => False
  end.

Lemma res_fail_safe : forall s r, res_safe s r -> fail_safe s r.
Proof. intros s [s' c' r|s' c'|]; simpl; auto. Qed.

Lemma join2_safe : forall p s r1 run2 fin,
  res_safe s r1 ->
  (forall s1 c1, BddOK s1 -> extends s s1 -> CacheOK cget s1 c1 -> res_safe s1 (run2 s1 c1)) ->
  (forall s2 c2 t e, fin s2 c2 t e = ROom s2 c2 \/ exists s3 c3 r, fin s2 c2 t e = ROk s3 c3 r) ->
  fail_safe s (join2 p r1 run2 fin).
Proof.
  intros p s r1 run2 fin H1 H2 H3. unfold join2.
  destruct r1 as [s1 c1 t|s1 c1|]; simpl in H1; [| |contradiction].
  - destruct H1 as [B1 [X1 O1]]. specialize (H2 s1 c1 B1 X1 O1).
    destruct (run2 s1 c1) as [s2 c2 e|s2 c2|]; simpl in H2; [| |contradiction].
    + destruct H2 as [B2 [X2 O2]].
      destruct (H3 s2 c2 t e) as [->|[s3 [c3 [r ->]]]]; simpl; [|exact I].
      split; [exact B2|]. split; [eapply extends_trans; eauto | exact O2].
    + destruct H2 as [B2 [X2 O2]]. simpl.
      split; [exact B2|]. split; [eapply extends_trans; eauto | exact O2].
  - destruct H1 as [B1 [X1 O1]]. destruct p; [|simpl; auto].
    specialize (H2 s1 c1 B1 X1 O1).
    destruct (run2 s1 c1) as [s2 c2 e|s2 c2|]; simpl in *; [| |contradiction];
      destruct H2 as [B2 [X2 O2]];
      (split; [exact B2|]; split; [eapply extends_trans; eauto | exact O2]).
Qed.

Lemma finish_shape : forall lvl code args s2 c2 t e,
  finish C cadd cap lvl code args s2 c2 t e = ROom s2 c2 \/
  exists s3 c3 r, finish C cadd cap lvl code args s2 c2 t e = ROk s3 c3 r.
Proof.
  intros. unfold finish. destruct (mk_node_cap cap s2 lvl [E t; E e]) as [[s3 h]|]; [right; eauto | left; reflexivity].
Qed.

(** a result is justified by the refinement and the C02 theorem about the
    unbounded run; what is left to prove by walking through the bounded
    algorithm is [fail_safe] *)
Lemma safe_intro : forall s c rb ru Phi,
  refines C cap s rb ru -> result_ok C cget s c ru Phi -> fail_safe s rb -> res_safe s rb.
Proof.
  intros s c [s' c' r|s' c'|] ru Phi R [s1 [c1 [r1 [E1 [B1 [X1 [O1 _]]]]]]] W; [|exact W|exact W].
  destruct R as [Eu _]. rewrite Eu in E1. inversion E1; subst. simpl. auto.
Qed.

(** ** [apply_not_c] *)

Theorem apply_not_c_safe : forall fuel s c f,
  BddOK s -> CacheOK cget s c -> ref_ok s f -> nlevels s - rlevel s f < fuel ->
  res_safe s (apply_not_c C cget cadd cap par fuel s c f).
Proof.
  induction fuel as [|n IH]; intros s c f B O Hf Hfuel; [lia|].
  destruct (den_exists s f B Hf) as [phi D].
  apply (safe_intro s c _ _ _ (apply_not_refines C cget cadd cap par (S n) s c f)
           (apply_not_ok C cget cadd Hlossy (S n) s c f phi B O D Hfuel)).
  pose proof (bo_wf s B) as H. rewrite apply_not_c_S. destruct f as [t|id].
  - destruct (view_total s (RT t) B Hf) as [v V]. rewrite V.
    destruct v as [|b]; [destruct (view_VI s _ V) as [i Hi]; discriminate|].
    destruct (term_of_total s (negb b) B) as [t' Et]. rewrite Et. exact I.
  - destruct Hf as [nd E]. rewrite E.
    rewrite (rlevel_node s id nd E) in Hfuel. pose proof (wf_level s H id nd E) as Hlv.
    destruct (cget c code_not [RN id]); [exact I|].
    destruct (bdd_children s id nd B E) as [a [b Ech]]. rewrite Ech.
    assert (Ha : nth_error (nchildren nd) 0 = Some a) by (rewrite Ech; reflexivity).
    assert (Hb : nth_error (nchildren nd) 1 = Some b) by (rewrite Ech; reflexivity).
    destruct (child_nth s H id nd 0 a E Ha) as [Oa La].
    destruct (child_nth s H id nd 1 b E Hb) as [Ob Lb].
    apply join2_safe.
    + apply IH; auto. lia.
    + intros s1 c1 B1 X1 O1. apply IH; auto; [apply (ext_ref_ok _ _ _ X1 Ob)|].
      rewrite (ext_nlevels _ _ X1), (ext_rlevel _ _ _ X1 Ob). lia.
    + intros. apply finish_shape.
Qed.

(** ** [apply_bin_c] *)

Theorem apply_bin_c_safe : forall op fuel s c f g,
  BddOK s -> CacheOK cget s c -> ref_ok s f -> ref_ok s g ->
  nlevels s - Nat.min (rlevel s f) (rlevel s g) < fuel ->
  res_safe s (apply_bin_c gt C cget cadd cap par fuel s c op f g).
Proof.
  intros op. induction fuel as [|n IH]; intros s c f g B O Hf Hg Hfuel; [lia|].
  destruct (den_exists s f B Hf) as [phi Df]. destruct (den_exists s g B Hg) as [psi Dg].
  apply (safe_intro s c _ _ _ (apply_bin_refines gt C cget cadd cap par (S n) s c op f g)
           (apply_bin_ok gt C cget cadd Hlossy op (S n) s c f g phi psi B O Df Dg Hfuel)).
  pose proof (bo_wf s B) as H. rewrite apply_bin_c_S.
  pose proof (terminal_bin_sound gt s op f g phi psi B Df Dg) as T.
  destruct (terminal_bin gt s op f g) as [r|r|o a b|]; [exact I | | |contradiction].
  - destruct T as [Hr _]. apply res_fail_safe. apply apply_not_c_safe; auto.
    + destruct Hr as [->| ->]; assumption.
    + destruct Hr as [->| ->]; lia.
  - destruct T as [-> [[idf ->] [[idg ->] _]]].
    destruct (proj1 Df) as [fnd Ef]. destruct (proj1 Dg) as [gnd Eg].
    rewrite (rlevel_node s idf fnd Ef), (rlevel_node s idg gnd Eg) in Hfuel.
    pose proof (wf_level s H idf fnd Ef) as Hlf. pose proof (wf_level s H idg gnd Eg) as Hlg.
    destruct (cget c (op_code op) [a; b]); [exact I|].
    simpl inner. rewrite Ef, Eg.
    rewrite (wf_stored s H idf fnd Ef), (wf_stored s H idg gnd Eg).
    set (lvl := Nat.min (nlevel fnd) (nlevel gnd)) in *. cbv zeta.
    destruct (cof2_ok s idf fnd phi lvl B Df Ef ltac:(lia)) as [ft [fe [Ecf [Dft [Dfe [Lft Lfe]]]]]].
    destruct (cof2_ok s idg gnd psi lvl B Dg Eg ltac:(lia)) as [gt' [ge [Ecg [Dgt [Dge [Lgt Lge]]]]]].
    rewrite Ecf, Ecg.
    apply join2_safe.
    + apply IH; auto; [apply (proj1 Dft) | apply (proj1 Dgt) | lia].
    + intros s1 c1 B1 X1 O1.
      apply IH; auto; [apply (ext_ref_ok _ _ _ X1 (proj1 Dfe)) | apply (ext_ref_ok _ _ _ X1 (proj1 Dge))|].
      rewrite (ext_nlevels _ _ X1), (ext_rlevel _ _ _ X1 (proj1 Dfe)), (ext_rlevel _ _ _ X1 (proj1 Dge)). lia.
    + intros. apply finish_shape.
Qed.

(** ** [apply_ite_c] *)

Theorem apply_ite_c_safe : forall fuel s c f g h,
  BddOK s -> CacheOK cget s c -> ref_ok s f -> ref_ok s g -> ref_ok s h ->
  nlevels s - Nat.min (Nat.min (rlevel s f) (rlevel s g)) (rlevel s h) < fuel ->
  res_safe s (apply_ite_c gt C cget cadd cap par fuel s c f g h).
Proof.
  induction fuel as [|n IH]; intros s c f g h B O Hf Hg Hh Hfuel; [lia|].
  destruct (den_exists s f B Hf) as [phi Df]. destruct (den_exists s g B Hg) as [psi Dg].
  destruct (den_exists s h B Hh) as [theta Dh].
  apply (safe_intro s c _ _ _ (apply_ite_refines gt C cget cadd cap par (S n) s c f g h)
           (apply_ite_ok gt C cget cadd Hlossy (S n) s c f g h phi psi theta B O Df Dg Dh Hfuel)).
  pose proof (bo_wf s B) as H. rewrite apply_ite_c_S.
  assert (Bin : forall o x y, ref_ok s x -> ref_ok s y ->
            nlevels s - Nat.min (rlevel s x) (rlevel s y) < S n ->
            fail_safe s (apply_bin_c gt C cget cadd cap par (S n) s c o x y))
    by (intros; apply res_fail_safe; apply apply_bin_c_safe; auto).
  destruct (ref_eqb g h); [exact I|].
  destruct (ref_eqb f g); [apply Bin; auto; lia|].
  destruct (ref_eqb f h); [apply Bin; auto; lia|].
  destruct (view_total s f B Hf) as [vf Vf].
  destruct (view_total s g B Hg) as [vg Vg].
  destruct (view_total s h B Hh) as [vh Vh].
  rewrite Vf. destruct vf as [|bf]; [|exact I].
  rewrite Vg, Vh. destruct vg as [|[]], vh as [|[]]; try exact I; try (apply Bin; auto; lia).
  - (* all three inner *)
    destruct (view_VI s f Vf) as [idf ->]. destruct (view_VI s g Vg) as [idg ->].
    destruct (view_VI s h Vh) as [idh ->].
    destruct Hf as [fnd Ef]. destruct Hg as [gnd Eg]. destruct Hh as [hnd Eh].
    rewrite (rlevel_node s idf fnd Ef), (rlevel_node s idg gnd Eg), (rlevel_node s idh hnd Eh) in Hfuel.
    pose proof (wf_level s H idf fnd Ef) as Hlf. pose proof (wf_level s H idg gnd Eg) as Hlg.
    pose proof (wf_level s H idh hnd Eh) as Hlh.
    destruct (cget c code_ite [RN idf; RN idg; RN idh]); [exact I|].
    simpl inner. rewrite Ef, Eg, Eh.
    rewrite (wf_stored s H idf fnd Ef), (wf_stored s H idg gnd Eg), (wf_stored s H idh hnd Eh).
    set (lvl := Nat.min (Nat.min (nlevel fnd) (nlevel gnd)) (nlevel hnd)) in *. cbv zeta.
    destruct (cof2_ok s idf fnd phi lvl B Df Ef ltac:(lia)) as [ft [fe [Ecf [Dft [Dfe [Lft Lfe]]]]]].
    destruct (cof2_ok s idg gnd psi lvl B Dg Eg ltac:(lia)) as [gt' [ge [Ecg [Dgt [Dge [Lgt Lge]]]]]].
    destruct (cof2_ok s idh hnd theta lvl B Dh Eh ltac:(lia)) as [ht [he [Ech [Dht [Dhe [Lht Lhe]]]]]].
    rewrite Ecf, Ecg, Ech.
    apply join2_safe.
    + apply IH; auto; [apply (proj1 Dft) | apply (proj1 Dgt) | apply (proj1 Dht) | lia].
    + intros s1 c1 B1 X1 O1.
      apply IH; auto; [apply (ext_ref_ok _ _ _ X1 (proj1 Dfe)) | apply (ext_ref_ok _ _ _ X1 (proj1 Dge))
                      | apply (ext_ref_ok _ _ _ X1 (proj1 Dhe))|].
      rewrite (ext_nlevels _ _ X1), (ext_rlevel _ _ _ X1 (proj1 Dfe)),
              (ext_rlevel _ _ _ X1 (proj1 Dge)), (ext_rlevel _ _ _ X1 (proj1 Dhe)). lia.
    + intros. apply finish_shape.
  - (* g = false, h = true: not f *)
    apply res_fail_safe. apply apply_not_c_safe; auto. lia.
  - (* g = false, h = false (excluded by g <> h in a well-formed table; the code calls not f) *)
    apply res_fail_safe. apply apply_not_c_safe; auto. lia.
Qed.

End Safe.

Arguments res_safe {C}.

(** ** The C14 statements *)

Section Top.
Variable gt : ref -> ref -> bool.
Variable C : Type.
Variable cget : C -> N -> list ref -> option ref.
Variable cadd : C -> N -> list ref -> ref -> C.
Hypothesis Hlossy : lossy cget cadd.

(** *** the state after a failure *)

Definition failed_ok (cap : nat) (s : snap) (s' : snap) (c' : C) : Prop :=
  BddOK s' /\ CacheOK cget s' c' /\ extends s s' /\ intact s s' /\
  node_count s <= node_count s' /\ cap <= node_count s'.

Lemma failed_ok_intro : forall cap s s' c' ru, BddOK s ->
  res_safe cget s (ROom s' c') -> refines C cap s (ROom s' c') ru -> failed_ok cap s s' c'.
Proof.
  intros cap s s' c' ru B [B' [X O']] [Hc Hcap].
  split; [exact B'|]. split; [exact O'|]. split; [exact X|].
  split; [apply (extends_intact s s' B X) | auto].
Qed.

Lemma not_rs : forall cap par fuel s c f,
  BddOK s -> CacheOK cget s c -> ref_ok s f -> FUEL s <= fuel ->
  res_safe cget s (apply_not_c C cget cadd cap par fuel s c f).
Proof.
  intros cap par fuel s c f B O Hf Hfuel. unfold FUEL in Hfuel.
  apply (apply_not_c_safe C cget cadd Hlossy); auto. lia.
Qed.

Lemma bin_rs : forall cap par op fuel s c f g,
  BddOK s -> CacheOK cget s c -> ref_ok s f -> ref_ok s g -> FUEL s <= fuel ->
  res_safe cget s (apply_bin_c gt C cget cadd cap par fuel s c op f g).
Proof.
  intros cap par op fuel s c f g B O Hf Hg Hfuel. unfold FUEL in Hfuel.
  apply (apply_bin_c_safe gt C cget cadd Hlossy); auto. lia.
Qed.

Lemma ite_rs : forall cap par fuel s c f g h,
  BddOK s -> CacheOK cget s c -> ref_ok s f -> ref_ok s g -> ref_ok s h -> FUEL s <= fuel ->
  res_safe cget s (apply_ite_c gt C cget cadd cap par fuel s c f g h).
Proof.
  intros cap par fuel s c f g h B O Hf Hg Hh Hfuel. unfold FUEL in Hfuel.
  apply (apply_ite_c_safe gt C cget cadd Hlossy); auto. lia.
Qed.

Theorem oom_safe_not : forall cap par fuel s c f s' c',
  BddOK s -> CacheOK cget s c -> ref_ok s f -> FUEL s <= fuel ->
  apply_not_c C cget cadd cap par fuel s c f = ROom s' c' ->
  failed_ok cap s s' c'.
Proof.
  intros cap par fuel s c f s' c' B O Hf Hfuel E.
  apply (failed_ok_intro cap s s' c' (apply_not C cget cadd fuel s c f) B); rewrite <- E;
    [apply not_rs; assumption | apply apply_not_refines].
Qed.

Theorem oom_safe_bin : forall cap par op fuel s c f g s' c',
  BddOK s -> CacheOK cget s c -> ref_ok s f -> ref_ok s g -> FUEL s <= fuel ->
  apply_bin_c gt C cget cadd cap par fuel s c op f g = ROom s' c' ->
  failed_ok cap s s' c'.
Proof.
  intros cap par op fuel s c f g s' c' B O Hf Hg Hfuel E.
  apply (failed_ok_intro cap s s' c' (apply_bin gt C cget cadd fuel s c op f g) B); rewrite <- E;
    [apply bin_rs; assumption | apply apply_bin_refines].
Qed.

Theorem oom_safe_ite : forall cap par fuel s c f g h s' c',
  BddOK s -> CacheOK cget s c -> ref_ok s f -> ref_ok s g -> ref_ok s h -> FUEL s <= fuel ->
  apply_ite_c gt C cget cadd cap par fuel s c f g h = ROom s' c' ->
  failed_ok cap s s' c'.
Proof.
  intros cap par fuel s c f g h s' c' B O Hf Hg Hh Hfuel E.
  apply (failed_ok_intro cap s s' c' (apply_ite gt C cget cadd fuel s c f g h) B); rewrite <- E;
    [apply ite_rs; assumption | apply apply_ite_refines].
Qed.

(** *** no panic, no divergence: the only outcomes are a result or out-of-memory *)

Lemma res_safe_not_stuck : forall s (r : res C), res_safe cget s r -> r <> RStuck.
Proof. intros s r S E. rewrite E in S. exact S. Qed.

Theorem oom_no_panic_not : forall cap par fuel s c f,
  BddOK s -> CacheOK cget s c -> ref_ok s f -> FUEL s <= fuel ->
  apply_not_c C cget cadd cap par fuel s c f <> RStuck.
Proof. intros. apply (res_safe_not_stuck s), not_rs; assumption. Qed.

Theorem oom_no_panic_bin : forall cap par op fuel s c f g,
  BddOK s -> CacheOK cget s c -> ref_ok s f -> ref_ok s g -> FUEL s <= fuel ->
  apply_bin_c gt C cget cadd cap par fuel s c op f g <> RStuck.
Proof. intros. apply (res_safe_not_stuck s), bin_rs; assumption. Qed.

Theorem oom_no_panic_ite : forall cap par fuel s c f g h,
  BddOK s -> CacheOK cget s c -> ref_ok s f -> ref_ok s g -> ref_ok s h -> FUEL s <= fuel ->
  apply_ite_c gt C cget cadd cap par fuel s c f g h <> RStuck.
Proof. intros. apply (res_safe_not_stuck s), ite_rs; assumption. Qed.

(** *** a result is never wrong: it is literally the result of the unbounded run *)

Theorem oom_never_wrong_not : forall cap par fuel s c f s' c' r,
  apply_not_c C cget cadd cap par fuel s c f = ROk s' c' r ->
  apply_not C cget cadd fuel s c f = Some (s', c', r).
Proof. intros cap par fuel s c f s' c' r E. apply (sim_ok _ _ _ _ _ _ _ _ (apply_not_sim C cget cadd cap par fuel s c f) E). Qed.

Theorem oom_never_wrong_bin : forall cap par op fuel s c f g s' c' r,
  apply_bin_c gt C cget cadd cap par fuel s c op f g = ROk s' c' r ->
  apply_bin gt C cget cadd fuel s c op f g = Some (s', c', r).
Proof. intros cap par op fuel s c f g s' c' r E. apply (sim_ok _ _ _ _ _ _ _ _ (apply_bin_sim gt C cget cadd cap par fuel s c op f g) E). Qed.

Theorem oom_never_wrong_ite : forall cap par fuel s c f g h s' c' r,
  apply_ite_c gt C cget cadd cap par fuel s c f g h = ROk s' c' r ->
  apply_ite gt C cget cadd fuel s c f g h = Some (s', c', r).
Proof. intros cap par fuel s c f g h s' c' r E. apply (sim_ok _ _ _ _ _ _ _ _ (apply_ite_sim gt C cget cadd cap par fuel s c f g h) E). Qed.

(** ... hence the pointwise connective of the operands (C02), in a table in
    which everything that existed before is intact *)

Lemma sound_intact : forall s ru s' c' r (V : snap -> ref -> Prop), BddOK s ->
  (exists s1 c1 r1, ru = Some (s1, c1, r1) /\
     BddOK s1 /\ extends s s1 /\ CacheOK cget s1 c1 /\ ref_ok s1 r1 /\ V s1 r1) ->
  ru = Some (s', c', r) ->
  BddOK s' /\ CacheOK cget s' c' /\ intact s s' /\ ref_ok s' r /\ V s' r.
Proof.
  intros s ru s' c' r V B [s1 [c1 [r1 [E1 [B1 [X1 [O1 [R1 V1]]]]]]]] E.
  rewrite E in E1. inversion E1; subst s1 c1 r1.
  split; [exact B1|]. split; [exact O1|]. split; [apply (extends_intact s s' B X1)|]. auto.
Qed.

Theorem oom_never_wrong_not_sem : forall cap par fuel s c f s' c' r,
  BddOK s -> CacheOK cget s c -> ref_ok s f -> FUEL s <= fuel ->
  apply_not_c C cget cadd cap par fuel s c f = ROk s' c' r ->
  BddOK s' /\ CacheOK cget s' c' /\ intact s s' /\ ref_ok s' r /\
  forall c0, bchoice c0 -> exists x, bvalue s f c0 x /\ bvalue s' r c0 (negb x).
Proof.
  intros cap par fuel s c f s' c' r B O Hf Hfuel E.
  apply (sound_intact s _ s' c' r (fun s' r => forall c0, bchoice c0 -> exists x, bvalue s f c0 x /\ bvalue s' r c0 (negb x)) B
           (apply_not_sound C cget cadd Hlossy fuel s c f B O Hf Hfuel) (oom_never_wrong_not _ _ _ _ _ _ _ _ _ E)).
Qed.

Theorem oom_never_wrong_bin_sem : forall cap par op fuel s c f g s' c' r,
  BddOK s -> CacheOK cget s c -> ref_ok s f -> ref_ok s g -> FUEL s <= fuel ->
  apply_bin_c gt C cget cadd cap par fuel s c op f g = ROk s' c' r ->
  BddOK s' /\ CacheOK cget s' c' /\ intact s s' /\ ref_ok s' r /\
  forall c0, bchoice c0 -> exists x y,
    bvalue s f c0 x /\ bvalue s g c0 y /\ bvalue s' r c0 (eval_bop op x y).
Proof.
  intros cap par op fuel s c f g s' c' r B O Hf Hg Hfuel E.
  apply (sound_intact s _ s' c' r _ B
           (apply_bin_sound gt C cget cadd Hlossy op fuel s c f g B O Hf Hg Hfuel)
           (oom_never_wrong_bin _ _ _ _ _ _ _ _ _ _ _ E)).
Qed.

Theorem oom_never_wrong_ite_sem : forall cap par fuel s c f g h s' c' r,
  BddOK s -> CacheOK cget s c -> ref_ok s f -> ref_ok s g -> ref_ok s h -> FUEL s <= fuel ->
  apply_ite_c gt C cget cadd cap par fuel s c f g h = ROk s' c' r ->
  BddOK s' /\ CacheOK cget s' c' /\ intact s s' /\ ref_ok s' r /\
  forall c0, bchoice c0 -> exists x y z,
    bvalue s f c0 x /\ bvalue s g c0 y /\ bvalue s h c0 z /\ bvalue s' r c0 (if x then y else z).
Proof.
  intros cap par fuel s c f g h s' c' r B O Hf Hg Hh Hfuel E.
  apply (sound_intact s _ s' c' r _ B
           (apply_ite_sound gt C cget cadd Hlossy fuel s c f g h B O Hf Hg Hh Hfuel)
           (oom_never_wrong_ite _ _ _ _ _ _ _ _ _ _ _ E)).
Qed.

(** *** retry: when the table the unbounded run produces fits, the bounded run
    succeeds with exactly that result (in any table, e.g. the one left by
    dropping handles and collecting after a failure) *)

Theorem oom_retry_not : forall cap par fuel s c f su cu ru,
  apply_not C cget cadd fuel s c f = Some (su, cu, ru) -> node_count su <= cap ->
  apply_not_c C cget cadd cap par fuel s c f = ROk su cu ru.
Proof.
  intros cap par fuel s c f su cu ru E. apply (sim_retry C cap s). rewrite <- E. apply apply_not_sim.
Qed.

Theorem oom_retry_bin : forall cap par op fuel s c f g su cu ru,
  apply_bin gt C cget cadd fuel s c op f g = Some (su, cu, ru) -> node_count su <= cap ->
  apply_bin_c gt C cget cadd cap par fuel s c op f g = ROk su cu ru.
Proof.
  intros cap par op fuel s c f g su cu ru E. apply (sim_retry C cap s). rewrite <- E. apply apply_bin_sim.
Qed.

Theorem oom_retry_ite : forall cap par fuel s c f g h su cu ru,
  apply_ite gt C cget cadd fuel s c f g h = Some (su, cu, ru) -> node_count su <= cap ->
  apply_ite_c gt C cget cadd cap par fuel s c f g h = ROk su cu ru.
Proof.
  intros cap par fuel s c f g h su cu ru E. apply (sim_retry C cap s). rewrite <- E. apply apply_ite_sim.
Qed.

(** *** monotone in the capacity, independent of the recursor *)

Theorem oom_monotone_not : forall cap cap' par par' fuel s c f s' c' r, cap <= cap' ->
  apply_not_c C cget cadd cap par fuel s c f = ROk s' c' r ->
  apply_not_c C cget cadd cap' par' fuel s c f = ROk s' c' r.
Proof.
  intros cap cap' par par' fuel s c f s' c' r Hle.
  apply (sim_monotone C cap cap' s _ _ (apply_not C cget cadd fuel s c f) s' c' r Hle); apply apply_not_sim.
Qed.

Theorem oom_monotone_bin : forall cap cap' par par' op fuel s c f g s' c' r, cap <= cap' ->
  apply_bin_c gt C cget cadd cap par fuel s c op f g = ROk s' c' r ->
  apply_bin_c gt C cget cadd cap' par' fuel s c op f g = ROk s' c' r.
Proof.
  intros cap cap' par par' op fuel s c f g s' c' r Hle.
  apply (sim_monotone C cap cap' s _ _ (apply_bin gt C cget cadd fuel s c op f g) s' c' r Hle); apply apply_bin_sim.
Qed.

Theorem oom_monotone_ite : forall cap cap' par par' fuel s c f g h s' c' r, cap <= cap' ->
  apply_ite_c gt C cget cadd cap par fuel s c f g h = ROk s' c' r ->
  apply_ite_c gt C cget cadd cap' par' fuel s c f g h = ROk s' c' r.
Proof.
  intros cap cap' par par' fuel s c f g h s' c' r Hle.
  apply (sim_monotone C cap cap' s _ _ (apply_ite gt C cget cadd fuel s c f g h) s' c' r Hle); apply apply_ite_sim.
Qed.

(** *** exactness: the operation fails if and only if it needs more nodes
    than the capacity allows; otherwise it returns the correct result *)

(** the outcome of a bounded run, given the table [su] the unbounded run produces *)
Definition exact_outcome (cap : nat) (s : snap) (rb : res C) (su : snap) (cu : C) (ru : ref) : Prop :=
  (node_count su <= Nat.max cap (node_count s) -> rb = ROk su cu ru) /\
  (Nat.max cap (node_count s) < node_count su -> exists s' c', rb = ROom s' c' /\ failed_ok cap s s' c').

Lemma exact_intro : forall cap s rb su cu ru, BddOK s ->
  res_safe cget s rb -> sim C cap s rb (Some (su, cu, ru)) -> exact_outcome cap s rb su cu ru.
Proof.
  intros cap s rb su cu ru B S [R F]. split; [apply F|].
  intros Hbig. destruct rb as [s' c' r|s' c'|]; [| |contradiction].
  - exfalso. destruct R as [Eu Hc]. inversion Eu; subst. lia.
  - exists s', c'. split; [reflexivity|]. eapply failed_ok_intro; eauto.
Qed.

Theorem oom_exact_not : forall cap par fuel s c f,
  BddOK s -> CacheOK cget s c -> ref_ok s f -> FUEL s <= fuel ->
  exists su cu ru, apply_not C cget cadd fuel s c f = Some (su, cu, ru) /\
    (forall c0, bchoice c0 -> exists x, bvalue s f c0 x /\ bvalue su ru c0 (negb x)) /\
    exact_outcome cap s (apply_not_c C cget cadd cap par fuel s c f) su cu ru.
Proof.
  intros cap par fuel s c f B O Hf Hfuel.
  destruct (apply_not_sound C cget cadd Hlossy fuel s c f B O Hf Hfuel)
    as [su [cu [ru [Eu [_ [_ [_ [_ V]]]]]]]].
  exists su, cu, ru. split; [exact Eu|]. split; [exact V|].
  apply exact_intro; [exact B | apply not_rs; assumption |]. rewrite <- Eu. apply apply_not_sim.
Qed.

Theorem oom_exact_bin : forall cap par op fuel s c f g,
  BddOK s -> CacheOK cget s c -> ref_ok s f -> ref_ok s g -> FUEL s <= fuel ->
  exists su cu ru, apply_bin gt C cget cadd fuel s c op f g = Some (su, cu, ru) /\
    (forall c0, bchoice c0 -> exists x y,
       bvalue s f c0 x /\ bvalue s g c0 y /\ bvalue su ru c0 (eval_bop op x y)) /\
    exact_outcome cap s (apply_bin_c gt C cget cadd cap par fuel s c op f g) su cu ru.
Proof.
  intros cap par op fuel s c f g B O Hf Hg Hfuel.
  destruct (apply_bin_sound gt C cget cadd Hlossy op fuel s c f g B O Hf Hg Hfuel)
    as [su [cu [ru [Eu [_ [_ [_ [_ V]]]]]]]].
  exists su, cu, ru. split; [exact Eu|]. split; [exact V|].
  apply exact_intro; [exact B | apply bin_rs; assumption |]. rewrite <- Eu. apply apply_bin_sim.
Qed.

Theorem oom_exact_ite : forall cap par fuel s c f g h,
  BddOK s -> CacheOK cget s c -> ref_ok s f -> ref_ok s g -> ref_ok s h -> FUEL s <= fuel ->
  exists su cu ru, apply_ite gt C cget cadd fuel s c f g h = Some (su, cu, ru) /\
    (forall c0, bchoice c0 -> exists x y z,
       bvalue s f c0 x /\ bvalue s g c0 y /\ bvalue s h c0 z /\ bvalue su ru c0 (if x then y else z)) /\
    exact_outcome cap s (apply_ite_c gt C cget cadd cap par fuel s c f g h) su cu ru.
Proof.
  intros cap par fuel s c f g h B O Hf Hg Hh Hfuel.
  destruct (apply_ite_sound gt C cget cadd Hlossy fuel s c f g h B O Hf Hg Hh Hfuel)
    as [su [cu [ru [Eu [_ [_ [_ [_ V]]]]]]]].
  exists su, cu, ru. split; [exact Eu|]. split; [exact V|].
  apply exact_intro; [exact B | apply ite_rs; assumption |]. rewrite <- Eu. apply apply_ite_sim.
Qed.

(** *** whether an operation fails does not depend on the recursor (nor, for
    the code, on the interleaving of the parallel branches): it is decided by
    whether the table of the unbounded run fits *)

Lemma exact_code : forall cap s rb rb' u (V V' : snap -> ref -> Prop),
  (exists su cu ru, u = Some (su, cu, ru) /\ V su ru /\ exact_outcome cap s rb su cu ru) ->
  (exists su cu ru, u = Some (su, cu, ru) /\ V' su ru /\ exact_outcome cap s rb' su cu ru) ->
  res_code rb = res_code rb'.
Proof.
  intros cap s rb rb' u V V' [su [cu [ru [E [_ [A1 B1]]]]]] [su' [cu' [ru' [E' [_ [A2 B2]]]]]].
  rewrite E in E'. inversion E'; subst su' cu' ru'.
  destruct (le_lt_dec (node_count su) (Nat.max cap (node_count s))) as [Hfit|Hbig].
  - rewrite (A1 Hfit), (A2 Hfit). reflexivity.
  - destruct (B1 Hbig) as [s1 [c1 [-> _]]]. destruct (B2 Hbig) as [s2 [c2 [-> _]]]. reflexivity.
Qed.

Theorem oom_outcome_recursor_indep_not : forall cap par par' fuel s c f,
  BddOK s -> CacheOK cget s c -> ref_ok s f -> FUEL s <= fuel ->
  res_code (apply_not_c C cget cadd cap par fuel s c f) =
  res_code (apply_not_c C cget cadd cap par' fuel s c f).
Proof.
  intros cap par par' fuel s c f B O Hf Hfuel.
  apply (exact_code cap s _ _ _ _ _ (oom_exact_not cap par fuel s c f B O Hf Hfuel)
           (oom_exact_not cap par' fuel s c f B O Hf Hfuel)).
Qed.

Theorem oom_outcome_recursor_indep_bin : forall cap par par' op fuel s c f g,
  BddOK s -> CacheOK cget s c -> ref_ok s f -> ref_ok s g -> FUEL s <= fuel ->
  res_code (apply_bin_c gt C cget cadd cap par fuel s c op f g) =
  res_code (apply_bin_c gt C cget cadd cap par' fuel s c op f g).
Proof.
  intros cap par par' op fuel s c f g B O Hf Hg Hfuel.
  apply (exact_code cap s _ _ _ _ _ (oom_exact_bin cap par op fuel s c f g B O Hf Hg Hfuel)
           (oom_exact_bin cap par' op fuel s c f g B O Hf Hg Hfuel)).
Qed.

Theorem oom_outcome_recursor_indep_ite : forall cap par par' fuel s c f g h,
  BddOK s -> CacheOK cget s c -> ref_ok s f -> ref_ok s g -> ref_ok s h -> FUEL s <= fuel ->
  res_code (apply_ite_c gt C cget cadd cap par fuel s c f g h) =
  res_code (apply_ite_c gt C cget cadd cap par' fuel s c f g h).
Proof.
  intros cap par par' fuel s c f g h B O Hf Hg Hh Hfuel.
  apply (exact_code cap s _ _ _ _ _ (oom_exact_ite cap par fuel s c f g h B O Hf Hg Hh Hfuel)
           (oom_exact_ite cap par' fuel s c f g h B O Hf Hg Hh Hfuel)).
Qed.

End Top.

(** ** Variable creation ([var_edge] / [not_var_edge]): one insertion, no
    recursion.  On failure no table is returned at all: the manager is
    untouched. *)

Theorem oom_var_exact : forall cap s v neg, BddOK s -> v < nlevels s ->
  exists s' r, mk_var s v neg = Some (s', r) /\ BddOK s' /\ extends s s' /\ ref_ok s' r /\
    (forall a, ApplyEvalProofs.bfun_of s' r a = xorb neg (var_s v a)) /\
    (node_count s' <= Nat.max cap (node_count s) -> mk_var_cap cap s v neg = Some (Some (s', r))) /\
    (Nat.max cap (node_count s) < node_count s' ->
       mk_var_cap cap s v neg = Some None /\ cap <= node_count s).
Proof.
  intros cap s v neg B Hv.
  destruct (ApplyEvalProofs.mk_var_bfun s v neg B Hv) as [s' [r [Ev [B' [X [R V]]]]]].
  exists s', r. split; [exact Ev|]. split; [exact B'|]. split; [exact X|]. split; [exact R|].
  split; [exact V|].
  unfold mk_var in Ev. unfold mk_var_cap.
  destruct (nth_error (s_v2l s) v) as [lvl|]; [|discriminate].
  destruct (term_of s true) as [t1|]; [|discriminate].
  destruct (term_of s false) as [t0|]; [|discriminate].
  set (ch := if neg then [E (RT t0); E (RT t1)] else [E (RT t1); E (RT t0)]) in *.
  destruct (get_or_insert s lvl ch) as [s1 e] eqn:Eg. inversion Ev; subst s1 r.
  destruct (get_or_insert_cap_fits cap s lvl ch s' e Eg) as [Hc Hf]. split.
  - intros Hfit. rewrite (Hf Hfit). reflexivity.
  - intros Hbig. destruct (get_or_insert_cap cap s lvl ch) as [[s2 e2]|] eqn:Ec.
    + exfalso. destruct (get_or_insert_cap_some cap s lvl ch _ Ec) as [Hx Hb].
      rewrite Eg in Hx. inversion Hx; subst. simpl in Hb. lia.
    + split; [reflexivity|]. apply (get_or_insert_cap_none cap s lvl ch Ec).
Qed.

Theorem oom_var_never_wrong : forall cap s v neg s' r,
  mk_var_cap cap s v neg = Some (Some (s', r)) -> mk_var s v neg = Some (s', r).
Proof.
  intros cap s v neg s' r. unfold mk_var_cap, mk_var.
  destruct (nth_error (s_v2l s) v) as [lvl|]; [|discriminate].
  destruct (term_of s true) as [t1|]; [|discriminate].
  destruct (term_of s false) as [t0|]; [|discriminate].
  set (ch := if neg then [E (RT t0); E (RT t1)] else [E (RT t1); E (RT t0)]).
  destruct (get_or_insert_cap cap s lvl ch) as [[s2 e2]|] eqn:Ec; [|discriminate].
  intros Heq. inversion Heq; subst.
  destruct (get_or_insert_cap_some cap s lvl ch _ Ec) as [-> _]. reflexivity.
Qed.

(** what [intact] says, spelled out *)
Theorem intact_elim : forall s s', intact s s' ->
  s_handles s' = s_handles s /\
  s_v2l s' = s_v2l s /\ s_l2v s' = s_l2v s /\ s_terms s' = s_terms s /\
  (forall id nd, find_node s id = Some nd -> find_node s' id = Some nd) /\
  (forall r, ref_ok s r -> ref_ok s' r /\ forall k c0, semk s' k r c0 = semk s k r c0) /\
  (forall h, In h (s_handles s) -> forall c0, sem_edge s' (snd h) c0 = sem_edge s (snd h) c0) /\
  (forall id, find_node s id = None -> ~ reachable s' (handle_refs s') (RN id)) /\
  (forall r, reachable s' (handle_refs s') r <-> reachable s (handle_refs s) r).
Proof.
  intros s s' [A [B1 [B2 B3]] C0 D E0 F G]. repeat (split; [assumption|]). assumption.
Qed.
