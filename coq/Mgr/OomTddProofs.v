(** * Out-of-memory behaviour of the TDD apply algorithms (Mgr/OomTdd.v), part 1

    Facts that need no invariant (every table, cache, fuel, capacity, operand
    order): [td_apply_*_sim] - when the bounded algorithm returns [GOk s' c' r]
    the unbounded algorithm of DD/ApplyTdd.v returns literally [Some (s', c', r)]
    and at most [cap] nodes are stored unless nothing was inserted; when it
    returns [GOom s' c'] no node has disappeared and the store is full; when the
    unbounded algorithm returns a table that fits, the bounded one returns
    exactly that result.  The invariant-dependent part is in Mgr/OomTddSafe.v. *)

From Coq Require Import List NArith PArith Bool Arith Lia FMapPositive.
From OxiVerif Require Import DD.Table DD.TableProofs DD.Build DD.BuildProofs
  DD.Apply DD.Tdd DD.ApplyTdd DD.ApplyTddBase DD.ApplyTddProofs DD.ApplyTddIte Mgr.Oom Mgr.OomProofs.
From OxiVerif Require Import Mgr.OomGen Mgr.OomGenProofs Mgr.OomBcddProofs Mgr.OomTdd.
Import ListNotations.

(** the shape of the unbounded expansion: three calls, [mk_node], cache insertion *)
Definition td_seq3_u {C : Type} (cadd : C -> N -> list ref -> ref -> C)
    (rec0 rec1 rec2 : snap -> C -> option (snap * C * ref))
    (lvl : nat) (code : N) (args : list ref) (s : snap) (c : C) : option (snap * C * ref) :=
  ubind (rec0 s c) (fun s1 c1 t =>
  ubind (rec1 s1 c1) (fun s2 c2 u =>
  ubind (rec2 s2 c2) (fun s3 c3 e =>
  ufin (mk_node s3 lvl [E t; E u; E e]) (fun h => cadd c3 code args (eref h)) (fun h => eref h)))).

Section Sim.
Variable gt : ref -> ref -> bool.
Variable C : Type.
Variable cget : C -> N -> list ref -> option ref.
Variable cadd : C -> N -> list ref -> ref -> C.
Variable cap : nat.

Notation SIM := (sim C no_m2 cap 1).

(** ** The walks *)

(** [reduce(..)?] + cache insertion *)
Lemma td_fin_sim : forall lvl code args s3 c3 t u e,
  SIM s3 (td_fin_c C cadd cap lvl code args s3 c3 t u e)
         (ufin (mk_node s3 lvl [E t; E u; E e]) (fun h => cadd c3 code args (eref h)) (fun h => eref h)).
Proof.
  intros. unfold td_fin_c. apply gfin_sim. apply mk_node_leaf. exact no_m2_terms.
Qed.

(** [td_seq3_u] unfolds to the nested matches the unbounded algorithms are
    written with, so it is enough to name the three calls when the lemma is
    applied *)
Lemma td_seq3_sim : forall (rec0 rec1 rec2 : snap -> C -> tres_c C) u0 u1 u2,
  (forall s c, SIM s (rec0 s c) (u0 s c)) ->
  (forall s c, SIM s (rec1 s c) (u1 s c)) ->
  (forall s c, SIM s (rec2 s c) (u2 s c)) ->
  forall lvl code args s c,
    SIM s (td_seq3_c C cadd cap rec0 rec1 rec2 lvl code args s c)
          (td_seq3_u cadd u0 u1 u2 lvl code args s c).
Proof.
  intros rec0 rec1 rec2 u0 u1 u2 H0 H1 H2 lvl code args s c.
  unfold td_seq3_c, td_seq3_u.
  apply gbind_sim; [apply H0|]. intros s1 c1 t.
  apply gbind_sim; [apply H1|]. intros s2 c2 u.
  apply gbind_sim; [apply H2|]. intros s3 c3 e.
  apply td_fin_sim.
Qed.

Theorem td_apply_not_sim : forall fuel s c f,
  SIM s (td_apply_not_c C cget cadd cap fuel s c f) (td_apply_not C cget cadd fuel s c f).
Proof.
  induction fuel as [|n IH]; intros s c f; [apply sim_stuck|].
  cbn [td_apply_not_c td_apply_not].
  destruct (td_view s f) as [[nd|v]|]; [| | apply sim_stuck].
  - destruct (cget c tcode_not [f]); [apply sim_here|].
    destruct (children3 nd) as [[[f0 f1] f2]|]; [|apply sim_stuck].
    apply (td_seq3_sim _ _ _ (fun s' c' => td_apply_not C cget cadd n s' c' f0)
             (fun s' c' => td_apply_not C cget cadd n s' c' f1)
             (fun s' c' => td_apply_not C cget cadd n s' c' f2)); intros; apply IH.
  - destruct (term3 s (k_not v)); [apply sim_here | apply sim_stuck].
Qed.

Theorem td_apply_bin_sim : forall fuel s c op f g,
  SIM s (td_apply_bin_c gt C cget cadd cap fuel s c op f g) (td_apply_bin gt C cget cadd fuel s c op f g).
Proof.
  induction fuel as [|n IH]; intros s c op f g; [apply sim_stuck|].
  cbn [td_apply_bin_c td_apply_bin].
  destruct (td_view s f) as [vf|]; [|apply sim_stuck].
  destruct (td_view s g) as [vg|]; [|apply sim_stuck].
  destruct (td_tb gt s op f g vf vg) as [r|r|o a b|];
    [apply sim_here | apply td_apply_not_sim | | apply sim_stuck].
  destruct (cget c (top_code o) [a; b]); [apply sim_here|].
  destruct (lmin (tlevel vf) (tlevel vg)) as [lvl|]; [|apply sim_stuck].
  destruct (td_cof f vf lvl) as [[[f0 f1] f2]|]; [|apply sim_stuck].
  destruct (td_cof g vg lvl) as [[[g0 g1] g2]|]; [|apply sim_stuck].
  apply (td_seq3_sim _ _ _ (fun s' c' => td_apply_bin gt C cget cadd n s' c' op f0 g0)
           (fun s' c' => td_apply_bin gt C cget cadd n s' c' op f1 g1)
           (fun s' c' => td_apply_bin gt C cget cadd n s' c' op f2 g2)); intros; apply IH.
Qed.

Theorem td_apply_ite_sim : forall fuel s c f g h,
  SIM s (td_apply_ite_c gt C cget cadd cap fuel s c f g h) (td_apply_ite gt C cget cadd fuel s c f g h).
Proof.
  induction fuel as [|n IH]; intros s c f g h; [apply sim_stuck|].
  cbn [td_apply_ite_c td_apply_ite].
  destruct (ref_eqb g h); [apply sim_here|].
  destruct (ref_eqb f g); [apply td_apply_bin_sim|].
  destruct (ref_eqb f h); [apply td_apply_bin_sim|].
  destruct (td_view s f) as [vf|]; [|apply sim_stuck].
  destruct (td_view s g) as [vg|]; [|apply sim_stuck].
  destruct (td_view s h) as [vh|]; [|apply sim_stuck].
  destruct (td_ite_sc s f g h vf vg vh) as [r|op a b|a| |];
    [apply sim_here | apply td_apply_bin_sim | apply td_apply_not_sim | | apply sim_stuck].
  destruct (cget c tcode_ite [f; g; h]); [apply sim_here|].
  destruct (lmin (lmin (tlevel vf) (tlevel vg)) (tlevel vh)) as [lvl|]; [|apply sim_stuck].
  destruct (td_cof f vf lvl) as [[[f0 f1] f2]|]; [|apply sim_stuck].
  destruct (td_cof g vg lvl) as [[[g0 g1] g2]|]; [|apply sim_stuck].
  destruct (td_cof h vh lvl) as [[[h0 h1] h2]|]; [|apply sim_stuck].
  apply (td_seq3_sim _ _ _ (fun s' c' => td_apply_ite gt C cget cadd n s' c' f0 g0 h0)
           (fun s' c' => td_apply_ite gt C cget cadd n s' c' f1 g1 h1)
           (fun s' c' => td_apply_ite gt C cget cadd n s' c' f2 g2 h2)); intros; apply IH.
Qed.

(** the three entry points at once *)
Theorem trun_sim : forall fuel s c k,
  SIM s (trun_c gt C cget cadd cap fuel s c k) (trun_u gt C cget cadd fuel s c k).
Proof.
  intros fuel s c [f|op f g|f g h]; simpl;
    [apply td_apply_not_sim | apply td_apply_bin_sim | apply td_apply_ite_sim].
Qed.

End Sim.

(** ** Variable creation *)

Lemma td_var_cap_sim : forall cap s v,
  match td_var s v with
  | Some u => exists o, td_var_cap cap s v = Some o /\ leaf_rel no_m2 cap 1 s o u
  | None => td_var_cap cap s v = None
  end.
Proof.
  intros cap s v. unfold td_var, td_var_cap.
  destruct (nth_error (s_v2l s) v) as [lvl|]; [|reflexivity].
  destruct (term3 s TT) as [t2|]; [|reflexivity].
  destruct (term3 s TU) as [t1|]; [|reflexivity].
  destruct (term3 s TF) as [t0|]; [|reflexivity].
  pose proof (goi_leaf no_m2 no_m2_terms cap 1 s lvl [E (RT t2); E (RT t1); E (RT t0)]) as L.
  pose proof (leaf_map no_m2 cap 1 edge ref s _ _ (fun e => eref e) L) as L'.
  destruct (get_or_insert s lvl [E (RT t2); E (RT t1); E (RT t0)]) as [s' r] eqn:Eg.
  destruct (get_or_insert_cap cap s lvl [E (RT t2); E (RT t1); E (RT t0)]) as [[s2 r2]|];
    eexists; split; try reflexivity; exact L'.
Qed.
