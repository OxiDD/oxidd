(** * Out-of-memory behaviour of the TDD apply algorithms (Mgr/OomTdd.v), part 2

    Under the invariant of the C11 theorems for TDD tables ([TdOK], [TCacheOK],
    operands are valid references, fuel above the height):
    [td_apply_*_c_safe] - the bounded algorithms never get stuck, and whatever
    they return - result or out-of-memory - the table they leave is a well-formed
    TDD table extending the one they started from, with a correct cache.

    Method (as Mgr/OomBcddSafe.v): the [GOk] case is NOT re-proved - it follows
    from the refinement ([td_apply_*_sim]) and the theorems about the unbounded
    algorithms ([td_apply_not_ok], [td_apply_bin_ok], [td_apply_ite_ok]); the
    failure case is a walk through the bounded algorithm that only needs the
    preconditions of the sub-calls (references valid, fuel). *)

From Coq Require Import List NArith PArith Bool Arith Lia FMapPositive.
From OxiVerif Require Import DD.Table DD.TableProofs DD.Canon DD.Build DD.BuildProofs
  DD.Apply DD.ApplyProofs DD.Tdd DD.TddTables DD.ApplyTdd DD.ApplyTddBase DD.ApplyTddProofs DD.ApplyTddIte
  Mgr.Oom Mgr.OomProofs.
From OxiVerif Require Import Mgr.OomGen Mgr.OomGenProofs Mgr.OomBcddProofs Mgr.OomTdd Mgr.OomTddProofs.
Import ListNotations.

Section Safe.
Variable gt : ref -> ref -> bool.
Variable C : Type.
Variable cget : C -> N -> list ref -> option ref.
Variable cadd : C -> N -> list ref -> ref -> C.
Hypothesis Hlossy : lossy cget cadd.
Variable cap : nat.

(** the invariant of the manager: table and cache *)
Definition TInvC (s : snap) (c : C) : Prop := TdOK s /\ TCacheOK cget s c.
(** the result is a valid reference *)
Definition Qref (s : snap) (r : ref) : Prop := ref_ok s r.

Notation RS := (res_safe TInvC extends Qref).
Notation FS := (fail_safe TInvC extends).

(** ** the expansion: three sequential calls, [reduce], cache insertion *)

Lemma td_seq3_c_fs : forall (rec0 rec1 rec2 : snap -> C -> tres_c C) lvl code args s c,
  TInvC s c ->
  (forall s0 c0, TInvC s0 c0 -> extends s s0 -> RS s0 (rec0 s0 c0)) ->
  (forall s1 c1, TInvC s1 c1 -> extends s s1 -> RS s1 (rec1 s1 c1)) ->
  (forall s2 c2, TInvC s2 c2 -> extends s s2 -> RS s2 (rec2 s2 c2)) ->
  FS s (td_seq3_c C cadd cap rec0 rec1 rec2 lvl code args s c).
Proof.
  intros rec0 rec1 rec2 lvl code args s c I0 H0 H1 H2. unfold td_seq3_c.
  apply (gbind_safe C TInvC extends extends_trans ref ref Qref s _ _ (H0 s c I0 (extends_refl s))).
  intros s1 c1 t I1 X1 _.
  apply (gbind_safe C TInvC extends extends_trans ref ref Qref s1 _ _ (H1 s1 c1 I1 X1)).
  intros s2 c2 u I2 X2 _.
  assert (X02 : extends s s2) by (eapply extends_trans; eauto).
  apply (gbind_safe C TInvC extends extends_trans ref ref Qref s2 _ _ (H2 s2 c2 I2 X02)).
  intros s3 c3 e I3 X3 _.
  unfold td_fin_c. apply gfin_safe; [exact I3 | apply extends_refl].
Qed.

Lemma below_ext : forall s s1 lvl r, extends s s1 -> ref_ok s r -> lvl < rlevel s r ->
  ref_ok s1 r /\ lvl < rlevel s1 r.
Proof.
  intros s s1 lvl r X Hr L. rewrite (ext_rlevel _ _ _ X Hr). split; [apply (ext_ref_ok _ _ _ X Hr) | exact L].
Qed.

Lemma below_fuel : forall s s1 lvl m n, extends s s1 ->
  nlevels s - lvl < S n -> lvl < nlevels s -> lvl < m -> nlevels s1 - m < n.
Proof. intros s s1 lvl m n X. rewrite (ext_nlevels _ _ X). lia. Qed.

(** what the theorem about an unbounded run gives [safe_by_sim] *)
Lemma tres_post : forall s c ru Phi, tresult_ok C cget s c ru Phi ->
  exists s1 c1 r1, ru = Some (s1, c1, r1) /\ TInvC s1 c1 /\ extends s s1 /\ Qref s1 r1.
Proof.
  intros s c ru Phi [s1 [c1 [r1 [E [B [X [O [D _]]]]]]]]. exists s1, c1, r1.
  split; [exact E|]. split; [split; assumption|]. split; [exact X | apply (proj1 D)].
Qed.

(** ** [td_apply_not_c] *)

Theorem td_apply_not_c_safe : forall fuel s c f,
  TdOK s -> TCacheOK cget s c -> ref_ok s f -> nlevels s - rlevel s f < fuel ->
  RS s (td_apply_not_c C cget cadd cap fuel s c f).
Proof.
  induction fuel as [|n IH]; intros s c f B O Hf Hfuel; [lia|].
  destruct (dent_exists s f B Hf) as [phi Df].
  apply (safe_by_sim C no_m2 cap 1 TInvC extends ref Qref s _ _ (td_apply_not_sim C cget cadd cap (S n) s c f)
           (tres_post s c _ _ (td_apply_not_ok C cget cadd Hlossy (S n) s c f phi B O Df Hfuel))).
  clear phi Df.
  pose proof (to_wf s B) as H.
  cbn [td_apply_not_c].
  destruct (td_view_total s f B Hf) as [x V]. rewrite V. destruct x as [nd|v].
  2:{ destruct (term3_total s (k_not v) B) as [t' Et]. rewrite Et. exact I. }
  destruct (td_view_TVI s f nd V) as [id [-> E]].
  rewrite (rlevel_node s id nd E) in Hfuel. pose proof (wf_level s H id nd E) as Hlv.
  destruct (cget c tcode_not [RN id]); [exact I|].
  destruct (dent_exists s (RN id) B Hf) as [phi D].
  assert (Hle : nlevel nd <= rlevel s (RN id)) by (rewrite (rlevel_node s id nd E); lia).
  destruct (td_cof_ok s (RN id) (TVI nd) phi (nlevel nd) B D V Hle Hlv)
    as [f0 [f1 [f2 [Ecf [D0 [D1 [D2 [L0 [L1 L2]]]]]]]]].
  simpl td_cof in Ecf. rewrite (wf_stored s H id nd E), Nat.eqb_refl in Ecf. rewrite Ecf.
  assert (Sub : forall x, ref_ok s x -> nlevel nd < rlevel s x ->
            forall s1 c1, TInvC s1 c1 -> extends s s1 -> RS s1 (td_apply_not_c C cget cadd cap n s1 c1 x)).
  { intros x Hx Lx s1 c1 [B1 O1] X1. destruct (below_ext s s1 _ x X1 Hx Lx).
    apply IH; auto. apply (below_fuel s s1 (nlevel nd)); auto. }
  apply td_seq3_c_fs; [split; assumption|apply Sub..]; auto; [apply (proj1 D0)|apply (proj1 D1)|apply (proj1 D2)].
Qed.

(** ** [td_apply_bin_c] *)

Theorem td_apply_bin_c_safe : forall op fuel s c f g,
  TdOK s -> TCacheOK cget s c -> ref_ok s f -> ref_ok s g ->
  nlevels s - Nat.min (rlevel s f) (rlevel s g) < fuel ->
  RS s (td_apply_bin_c gt C cget cadd cap fuel s c op f g).
Proof.
  intros op. induction fuel as [|n IH]; intros s c f g B O Hf Hg Hfuel; [lia|].
  destruct (dent_exists s f B Hf) as [phi Df]. destruct (dent_exists s g B Hg) as [psi Dg].
  apply (safe_by_sim C no_m2 cap 1 TInvC extends ref Qref s _ _ (td_apply_bin_sim gt C cget cadd cap (S n) s c op f g)
           (tres_post s c _ _ (td_apply_bin_ok gt C cget cadd Hlossy op (S n) s c f g phi psi B O Df Dg Hfuel))).
  pose proof (to_wf s B) as H.
  cbn [td_apply_bin_c].
  destruct (td_view_total s f B Hf) as [vf Vf]. destruct (td_view_total s g B Hg) as [vg Vg].
  rewrite Vf, Vg.
  pose proof (td_tb_sound gt s op f g vf vg phi psi B Df Dg Vf Vg) as T.
  destruct (td_tb gt s op f g vf vg) as [r|r|o a b|] eqn:Etb; simpl in T; [exact I| | |contradiction].
  - (* [return apply_not(manager, f)] *)
    eapply res_fail_safe. destruct T as [[-> _]|[-> _]]; apply td_apply_not_c_safe; auto; lia.
  - destruct T as [-> [Hin [Hne Hab]]].
    destruct (cget c (top_code op) [a; b]); [exact I|].
    destruct (lmin_level s f g vf vg H Vf Vg Hin) as [El Hlvl]. rewrite El.
    set (lvl := Nat.min (rlevel s f) (rlevel s g)) in *.
    destruct (td_cof_ok s f vf phi lvl B Df Vf ltac:(lia) Hlvl)
      as [f0 [f1 [f2 [Ecf [Df0 [Df1 [Df2 [Lf0 [Lf1 Lf2]]]]]]]]].
    destruct (td_cof_ok s g vg psi lvl B Dg Vg ltac:(lia) Hlvl)
      as [g0 [g1 [g2 [Ecg [Dg0 [Dg1 [Dg2 [Lg0 [Lg1 Lg2]]]]]]]]].
    rewrite Ecf, Ecg.
    assert (Sub : forall x y, ref_ok s x -> ref_ok s y -> lvl < rlevel s x -> lvl < rlevel s y ->
              forall s1 c1, TInvC s1 c1 -> extends s s1 ->
              RS s1 (td_apply_bin_c gt C cget cadd cap n s1 c1 op x y)).
    { intros x y Hx Hy Lx Ly s1 c1 [B1 O1] X1.
      destruct (below_ext s s1 lvl x X1 Hx Lx). destruct (below_ext s s1 lvl y X1 Hy Ly).
      apply IH; auto. apply (below_fuel s s1 lvl); auto. apply Nat.min_glb_lt; assumption. }
    apply td_seq3_c_fs; [split; assumption|apply Sub..]; auto;
      [apply (proj1 Df0)|apply (proj1 Dg0)|apply (proj1 Df1)|apply (proj1 Dg1)|apply (proj1 Df2)|apply (proj1 Dg2)].
Qed.

(** ** [td_apply_ite_c] *)

Theorem td_apply_ite_c_safe : forall fuel s c f g h,
  TdOK s -> TCacheOK cget s c -> ref_ok s f -> ref_ok s g -> ref_ok s h ->
  nlevels s - Nat.min (Nat.min (rlevel s f) (rlevel s g)) (rlevel s h) < fuel ->
  RS s (td_apply_ite_c gt C cget cadd cap fuel s c f g h).
Proof.
  induction fuel as [|n IH]; intros s c f g h B O Hf Hg Hh Hfuel; [lia|].
  destruct (dent_exists s f B Hf) as [phi Df]. destruct (dent_exists s g B Hg) as [psi Dg].
  destruct (dent_exists s h B Hh) as [theta Dh].
  apply (safe_by_sim C no_m2 cap 1 TInvC extends ref Qref s _ _ (td_apply_ite_sim gt C cget cadd cap (S n) s c f g h)
           (tres_post s c _ _ (td_apply_ite_ok gt C cget cadd Hlossy (S n) s c f g h phi psi theta B O Df Dg Dh Hfuel))).
  pose proof (to_wf s B) as H.
  cbn [td_apply_ite_c].
  assert (Bin : forall o x y, ref_ok s x -> ref_ok s y ->
            nlevels s - Nat.min (rlevel s x) (rlevel s y) < S n ->
            FS s (td_apply_bin_c gt C cget cadd cap (S n) s c o x y))
    by (intros; eapply res_fail_safe; apply td_apply_bin_c_safe; auto).
  assert (Hfg : nlevels s - Nat.min (rlevel s f) (rlevel s g) < S n) by lia.
  assert (Hfh : nlevels s - Nat.min (rlevel s f) (rlevel s h) < S n) by lia.
  destruct (ref_eqb g h) eqn:Egh; [exact I|].
  destruct (ref_eqb f g) eqn:Efg; [apply Bin; auto|].
  destruct (ref_eqb f h) eqn:Efh; [apply Bin; auto|].
  destruct (td_view_total s f B Hf) as [vf Vf]. destruct (td_view_total s g B Hg) as [vg Vg].
  destruct (td_view_total s h B Hh) as [vh Vh].
  rewrite Vf, Vg, Vh.
  assert (Nq : forall x y, ref_eqb x y = false -> x <> y).
  { intros x y E ->. assert (X : ref_eqb y y = true) by (apply ref_eqb_eq; reflexivity). congruence. }
  pose proof (td_ite_sc_sound s f g h vf vg vh phi psi theta B Df Dg Dh Vf Vg Vh
                (Nq _ _ Egh) (Nq _ _ Efg) (Nq _ _ Efh)) as T.
  destruct (td_ite_sc s f g h vf vg vh) as [r|op a b|a| |] eqn:Esc; simpl in T; [exact I| | | |contradiction].
  - destruct T as [[-> [-> _]]|[-> [-> _]]]; apply Bin; auto.
  - destruct T as [-> _]. eapply res_fail_safe. apply td_apply_not_c_safe; auto. lia.
  - (* no short-cut *)
    destruct (cget c tcode_ite [f; g; h]); [exact I|].
    destruct (lmin3_level s f g h vf vg vh H Vf Vg Vh T) as [El Hlvl]. rewrite El.
    set (lvl := Nat.min (Nat.min (rlevel s f) (rlevel s g)) (rlevel s h)) in *.
    destruct (td_cof_ok s f vf phi lvl B Df Vf ltac:(lia) Hlvl)
      as [f0 [f1 [f2 [Ecf [Df0 [Df1 [Df2 [Lf0 [Lf1 Lf2]]]]]]]]].
    destruct (td_cof_ok s g vg psi lvl B Dg Vg ltac:(lia) Hlvl)
      as [g0 [g1 [g2 [Ecg [Dg0 [Dg1 [Dg2 [Lg0 [Lg1 Lg2]]]]]]]]].
    destruct (td_cof_ok s h vh theta lvl B Dh Vh ltac:(lia) Hlvl)
      as [h0 [h1 [h2 [Ech [Dh0 [Dh1 [Dh2 [Lh0 [Lh1 Lh2]]]]]]]]].
    rewrite Ecf, Ecg, Ech.
    assert (Sub : forall x y z, ref_ok s x -> ref_ok s y -> ref_ok s z ->
              lvl < rlevel s x -> lvl < rlevel s y -> lvl < rlevel s z ->
              forall s1 c1, TInvC s1 c1 -> extends s s1 ->
              RS s1 (td_apply_ite_c gt C cget cadd cap n s1 c1 x y z)).
    { intros x y z Hx Hy Hz Lx Ly Lz s1 c1 [B1 O1] X1.
      destruct (below_ext s s1 lvl x X1 Hx Lx). destruct (below_ext s s1 lvl y X1 Hy Ly).
      destruct (below_ext s s1 lvl z X1 Hz Lz).
      apply IH; auto. apply (below_fuel s s1 lvl); auto. repeat apply Nat.min_glb_lt; assumption. }
    apply td_seq3_c_fs; [split; assumption|apply Sub..]; auto;
      [apply (proj1 Df0)|apply (proj1 Dg0)|apply (proj1 Dh0)|apply (proj1 Df1)|apply (proj1 Dg1)|apply (proj1 Dh1)
      |apply (proj1 Df2)|apply (proj1 Dg2)|apply (proj1 Dh2)].
Qed.

End Safe.
