(** * Out-of-memory behaviour of the TDD apply algorithms (Mgr/OomTdd.v), part 3:
      the C14 statements

    For the three entry points of the TDD rule set at once ([tcall]: not, the
    eight binary operators, if-then-else; [trun_c] = the bounded run in the error
    monad of the code, [trun_u] = the unbounded run of DD/ApplyTdd.v) and for
    [td_var_cap]:

    - [tdd_never_wrong], [tdd_retry], [tdd_monotone]: no hypothesis (every table,
      cache, fuel, capacity, operand order);
    - under the invariant ([TdOK], [TCacheOK] for a [lossy] cache, operands valid,
      fuel >= levels + 1): [tdd_never_wrong_sem] (a result is the FIXED
      three-valued table applied to the operands, in a table in which everything
      that existed is intact), [tdd_safe] (the state after [Err(OutOfMemory)]),
      [tdd_intact_meaning] ([intact_t] spelled out), [tdd_no_panic], [tdd_exact]
      (the run fails iff the table of the unbounded run does not fit);
    - [tdd_var_exact], [tdd_var_never_wrong]: variable creation (one insertion;
      on failure the manager is untouched). *)

From Coq Require Import List NArith PArith Bool Arith Lia FMapPositive.
From OxiVerif Require Import DD.Table DD.TableProofs DD.Canon DD.Build DD.BuildProofs
  DD.Apply DD.ApplyProofs DD.Tdd DD.TddTables DD.ApplyTdd DD.ApplyTddBase DD.ApplyTddProofs DD.ApplyTddIte
  DD.ApplyTddTop Mgr.Oom Mgr.OomProofs.
From OxiVerif Require Import Mgr.OomGen Mgr.OomGenProofs Mgr.OomBcddProofs Mgr.OomFamily
  Mgr.OomTdd Mgr.OomTddProofs Mgr.OomTddSafe.
Import ListNotations.

(** ** What an extension preserves (three-valued diagrams) *)

Record intact_t (s s' : snap) : Prop := mkIntactT {
  (* handles, order, stored nodes unchanged; added nodes unreachable; live part unchanged *)
  it_base : intact0 s s';
  (* the same three terminals *)
  it_terms : s_terms s' = s_terms s;
  (* every valid reference stays valid and has the same value under every fuel
     and every choice of children *)
  it_sem : forall r, ref_ok s r -> ref_ok s' r /\ forall k c0, semk s' k r c0 = semk s k r c0;
  (* ... hence the same three-valued function of the variables *)
  it_tfun : forall r, ref_ok s r -> forall av, tfun_of s' r av = tfun_of s r av;
  (* every handle has the same value under every assignment *)
  it_handle_sem : forall h, In h (s_handles s) ->
             forall c0, sem_edge s' (snd h) c0 = sem_edge s (snd h) c0
}.

Lemma tfun_of_extends : forall s s' r av, WF s -> extends s s' -> ref_ok s r ->
  tfun_of s' r av = tfun_of s r av.
Proof.
  intros s s' r av H X Hr. unfold tfun_of, FUEL.
  rewrite (ext_nlevels _ _ X), (semk_extends s s' H X _ _ _ Hr).
  replace (chc (lvl_asg s' av)) with (chc (lvl_asg s av)); [reflexivity|].
  unfold chc, lvl_asg. rewrite (ext_l2v _ _ X). reflexivity.
Qed.

Theorem extends_intact_t : forall s s', TdOK s -> extends s s' -> intact_t s s'.
Proof.
  intros s s' B X. pose proof (to_wf s B) as H. constructor.
  - apply (next_intact0 s s' H (next_of_extends s s' X)).
  - apply (ext_terms _ _ X).
  - intros r Hr. split; [apply (ext_ref_ok _ _ _ X Hr)|].
    intros k c0. apply (semk_extends s s' H X k r c0 Hr).
  - intros r Hr av. apply (tfun_of_extends s s' r av H X Hr).
  - intros h Hh c0. unfold sem_edge. rewrite (ext_kind _ _ X), (to_kind s B), (ext_nlevels _ _ X).
    cbv beta iota zeta. apply (semk_extends s s' H X). apply (proj1 (wf_handles s H h Hh)).
Qed.

Theorem intact_t_elim : forall s s', intact_t s s' ->
  s_handles s' = s_handles s /\
  s_v2l s' = s_v2l s /\ s_l2v s' = s_l2v s /\ s_terms s' = s_terms s /\
  (forall id nd, find_node s id = Some nd -> find_node s' id = Some nd) /\
  (forall r, ref_ok s r -> ref_ok s' r /\ forall k c0, semk s' k r c0 = semk s k r c0) /\
  (forall r, ref_ok s r -> forall av, tfun_of s' r av = tfun_of s r av) /\
  (forall h, In h (s_handles s) -> forall c0, sem_edge s' (snd h) c0 = sem_edge s (snd h) c0) /\
  (forall id, find_node s id = None -> ~ reachable s' (handle_refs s') (RN id)) /\
  (forall r, reachable s' (handle_refs s') r <-> reachable s (handle_refs s) r).
Proof.
  intros s s' [[A [B1 B2] C0 F G] T D D' E0]. repeat (split; [assumption|]). assumption.
Qed.

(** ** The hypotheses and the specification of a call *)

(** the operands are valid references *)
Definition tcall_ok (s : snap) (k : tcall) : Prop :=
  match k with
  | TCNot f => ref_ok s f
  | TCBin _ f g => ref_ok s f /\ ref_ok s g
  | TCIte f g h => ref_ok s f /\ ref_ok s g /\ ref_ok s h
  end.

Lemma tcall_ok_b_spec : forall s k, tcall_ok_b s k = true <-> tcall_ok s k.
Proof.
  intros s [f|op f g|f g h]; unfold tcall_ok_b, tcall_ok; simpl;
    rewrite ?andb_true_iff, ?ref_ok_b_spec; tauto.
Qed.

(** the result [r] (in table [s']) of the call [k] (operands in table [s]): under
    every three-valued assignment - by level through the interpreter [semk]
    ([tvalue]) and by variable ([tfun_of]) - its value is the FIXED table of
    DD/Tdd.v ([k_not], [table op], [ite3]) applied to the operands' values *)
Definition tcall_spec (s : snap) (k : tcall) (s' : snap) (r : ref) : Prop :=
  match k with
  | TCNot f =>
    (forall a : assignment, exists x,
       tvalue s f (chc a) x /\ tvalue s' r (chc a) (k_not x)) /\
    (forall av, tfun_of s' r av = k_not (tfun_of s f av))
  | TCBin op f g =>
    (forall a : assignment, exists x y,
       tvalue s f (chc a) x /\ tvalue s g (chc a) y /\ tvalue s' r (chc a) (table op x y)) /\
    (forall av, tfun_of s' r av = table op (tfun_of s f av) (tfun_of s g av))
  | TCIte f g h =>
    (forall a : assignment, exists x y z,
       tvalue s f (chc a) x /\ tvalue s g (chc a) y /\ tvalue s h (chc a) z /\
       tvalue s' r (chc a) (ite3 x y z)) /\
    (forall av, tfun_of s' r av = ite3 (tfun_of s f av) (tfun_of s g av) (tfun_of s h av))
  end.

(** the state after a failure *)
Definition tfailed_ok {C : Type} (cget : C -> N -> list ref -> option ref)
    (cap : nat) (s s' : snap) (c' : C) : Prop :=
  TdOK s' /\ TCacheOK cget s' c' /\ extends s s' /\ intact_t s s' /\
  node_count s <= node_count s' /\ cap <= node_count s'.

Section Top.
Variable gt : ref -> ref -> bool.
Variable C : Type.
Variable cget : C -> N -> list ref -> option ref.
Variable cadd : C -> N -> list ref -> ref -> C.
Hypothesis Hlossy : lossy cget cadd.

Notation INVC := (TInvC C cget).

(** the unbounded run (C11s theorems) for the three entry points at once *)
Lemma trun_u_ok : forall fuel s c k,
  TdOK s -> TCacheOK cget s c -> tcall_ok s k -> S (nlevels s) <= fuel ->
  exists su cu ru, trun_u gt C cget cadd fuel s c k = Some (su, cu, ru) /\
    TdOK su /\ extends s su /\ TCacheOK cget su cu /\ ref_ok su ru /\ tcall_spec s k su ru.
Proof.
  intros fuel s c k B O Hk Hfuel. destruct k as [f|op f g|f g h]; simpl in Hk |- *.
  - destruct (dent_exists s f B Hk) as [phi Df].
    destruct (td_apply_not_ok C cget cadd Hlossy fuel s c f phi B O Df ltac:(lia))
      as [s' [c' [r [E [B' [X [O' [D' _]]]]]]]].
    exists s', c', r. repeat (split; [assumption|]). split; [apply (proj1 D')|]. split.
    + intros a. exists (phi a). split; [apply (proj2 Df a) | apply (proj2 D' a)].
    + intros av. rewrite (tfun_of_ext s s' r _ av B' X D'), (tfun_of_den s f phi Df). reflexivity.
  - destruct Hk as [Hf Hg].
    destruct (dent_exists s f B Hf) as [phi Df]. destruct (dent_exists s g B Hg) as [psi Dg].
    destruct (td_apply_bin_ok gt C cget cadd Hlossy op fuel s c f g phi psi B O Df Dg ltac:(lia))
      as [s' [c' [r [E [B' [X [O' [D' _]]]]]]]].
    exists s', c', r. repeat (split; [assumption|]). split; [apply (proj1 D')|]. split.
    + intros a. exists (phi a), (psi a).
      split; [apply (proj2 Df a)|]. split; [apply (proj2 Dg a) | apply (proj2 D' a)].
    + intros av. rewrite (tfun_of_ext s s' r _ av B' X D'), (tfun_of_den s f phi Df),
        (tfun_of_den s g psi Dg). reflexivity.
  - destruct Hk as [Hf [Hg Hh]].
    destruct (dent_exists s f B Hf) as [phi Df]. destruct (dent_exists s g B Hg) as [psi Dg].
    destruct (dent_exists s h B Hh) as [theta Dh].
    destruct (td_apply_ite_ok gt C cget cadd Hlossy fuel s c f g h phi psi theta B O Df Dg Dh ltac:(lia))
      as [s' [c' [r [E [B' [X [O' [D' _]]]]]]]].
    exists s', c', r. repeat (split; [assumption|]). split; [apply (proj1 D')|]. split.
    + intros a. exists (phi a), (psi a), (theta a).
      split; [apply (proj2 Df a)|]. split; [apply (proj2 Dg a)|].
      split; [apply (proj2 Dh a) | apply (proj2 D' a)].
    + intros av. rewrite (tfun_of_ext s s' r _ av B' X D'), (tfun_of_den s f phi Df),
        (tfun_of_den s g psi Dg), (tfun_of_den s h theta Dh). reflexivity.
Qed.

(** the safe-run fact for the three entry points at once *)
Lemma trun_rs : forall cap fuel s c k,
  TdOK s -> TCacheOK cget s c -> tcall_ok s k -> S (nlevels s) <= fuel ->
  res_safe INVC extends Qref s (trun_c gt C cget cadd cap fuel s c k).
Proof.
  intros cap fuel s c k B O Hk Hfuel. destruct k as [f|op f g|f g h]; simpl in Hk |- *.
  - apply (td_apply_not_c_safe C cget cadd Hlossy); auto. lia.
  - destruct Hk. apply (td_apply_bin_c_safe gt C cget cadd Hlossy); auto. lia.
  - destruct Hk as [Hf [Hg Hh]]. apply (td_apply_ite_c_safe gt C cget cadd Hlossy); auto. lia.
Qed.

End Top.

(** ** The family (Mgr/OomFamily.v), one for each amount of fuel: no recursor; a
    cache that only serves what was added is part of the precondition *)

Definition trun_p gt C cget cadd (fuel cap : nat) (_ : unit) := trun_c gt C cget cadd cap fuel.
Definition tpre {C : Type} cget cadd (fuel : nat) (s : snap) (c : C) (k : tcall) : Prop :=
  lossy cget cadd /\ TdOK s /\ TCacheOK cget s c /\ tcall_ok s k /\ S (nlevels s) <= fuel.

Lemma tfam_sim : forall gt C cget cadd fuel cap p s c k,
  sim C no_m2 cap 1 s (trun_p gt C cget cadd fuel cap p s c k) (trun_u gt C cget cadd fuel s c k).
Proof. intros. apply trun_sim. Qed.

Lemma tfam_rs : forall gt C cget cadd fuel cap p s c k, tpre cget cadd fuel s c k ->
  res_safe (TInvC C cget) extends Qref s (trun_p gt C cget cadd fuel cap p s c k).
Proof. intros gt C cget cadd fuel cap p s c k [Hl [B [O [Hk Hf]]]]. apply trun_rs; assumption. Qed.

Lemma tfam_u_ok : forall gt C cget cadd fuel s c k, tpre cget cadd fuel s c k ->
  exists su cu ru, trun_u gt C cget cadd fuel s c k = Some (su, cu, ru) /\ tcall_spec s k su ru.
Proof.
  intros gt C cget cadd fuel s c k [Hl [B [O [Hk Hf]]]].
  destruct (trun_u_ok gt C cget cadd Hl fuel s c k B O Hk Hf) as [su [cu [ru [E [_ [_ [_ [_ V]]]]]]]].
  exists su, cu, ru. split; assumption.
Qed.

Lemma tfam_failed : forall C cget cadd fuel cap s (c : C) k s' c', tpre cget cadd fuel s c k ->
  failed1 C (TInvC C cget) extends cap s s' c' -> tfailed_ok cget cap s s' c'.
Proof.
  intros C cget cadd fuel cap s c k s' c' [_ [B _]] [[B' O'] [X [G F]]].
  split; [exact B'|]. split; [exact O'|]. split; [exact X|].
  split; [apply (extends_intact_t s s' B X)|]. auto.
Qed.

(** ** The statements *)

(** *** never a wrong edge: a result is literally the result of the unbounded run *)
Theorem tdd_never_wrong : forall gt C cget cadd cap fuel s (c : C) k s' c' r,
  trun_c gt C cget cadd cap fuel s c k = GOk s' c' r ->
  trun_u gt C cget cadd fuel s c k = Some (s', c', r).
Proof.
  intros gt C cget cadd cap fuel s c k.
  apply (fam_never_wrong (tfam_sim gt C cget cadd fuel) cap tt s c k).
Qed.

(** *** retry: when the table of the unbounded run fits, the bounded run
    succeeds with exactly that result *)
Theorem tdd_retry : forall gt C cget cadd cap fuel s (c : C) k su cu ru,
  trun_u gt C cget cadd fuel s c k = Some (su, cu, ru) -> node_count su <= cap ->
  trun_c gt C cget cadd cap fuel s c k = GOk su cu ru.
Proof.
  intros gt C cget cadd cap fuel s c k.
  apply (fam_retry (tfam_sim gt C cget cadd fuel) cap tt s c k).
Qed.

(** *** monotone in the capacity *)
Theorem tdd_monotone : forall gt C cget cadd cap cap' fuel s (c : C) k s' c' r, cap <= cap' ->
  trun_c gt C cget cadd cap fuel s c k = GOk s' c' r ->
  trun_c gt C cget cadd cap' fuel s c k = GOk s' c' r.
Proof.
  intros gt C cget cadd cap cap' fuel s c k.
  apply (fam_monotone (tfam_sim gt C cget cadd fuel) cap cap' tt tt s c k).
Qed.

(** *** a result is the fixed table applied to the operands, in a table in which
    everything that existed before is intact *)
Theorem tdd_never_wrong_sem : forall gt C cget cadd, lossy cget cadd ->
  forall cap fuel s (c : C) k s' c' r,
  TdOK s -> TCacheOK cget s c -> tcall_ok s k -> S (nlevels s) <= fuel ->
  trun_c gt C cget cadd cap fuel s c k = GOk s' c' r ->
  TdOK s' /\ TCacheOK cget s' c' /\ intact_t s s' /\ ref_ok s' r /\ tcall_spec s k s' r.
Proof.
  intros gt C cget cadd Hlossy cap fuel s c k s' c' r B O Hk Hfuel E.
  destruct (fam_never_wrong_sem (tfam_sim gt C cget cadd fuel) (tfam_rs gt C cget cadd fuel) (tfam_u_ok gt C cget cadd fuel) cap tt s c k s' c' r
              (conj Hlossy (conj B (conj O (conj Hk Hfuel)))) E) as [[B' O'] [X R]].
  split; [exact B'|]. split; [exact O'|]. split; [apply (extends_intact_t s s' B X) | exact R].
Qed.

(** *** the state after a failure *)
Theorem tdd_safe : forall gt C cget cadd, lossy cget cadd ->
  forall cap fuel s (c : C) k s' c',
  TdOK s -> TCacheOK cget s c -> tcall_ok s k -> S (nlevels s) <= fuel ->
  trun_c gt C cget cadd cap fuel s c k = GOom s' c' ->
  TdOK s' /\ TCacheOK cget s' c' /\ extends s s' /\ intact_t s s' /\
  node_count s <= node_count s' /\ cap <= node_count s'.
Proof.
  intros gt C cget cadd Hlossy cap fuel s c k s' c' B O Hk Hfuel.
  apply (fam_safe (tfam_sim gt C cget cadd fuel) (tfam_rs gt C cget cadd fuel) (tfam_failed C cget cadd fuel)
           cap tt s c k s' c' (conj Hlossy (conj B (conj O (conj Hk Hfuel))))).
Qed.

(** *** what "intact" means for the owner of a handle *)
Theorem tdd_intact_meaning : forall s s', intact_t s s' ->
  s_handles s' = s_handles s /\
  s_v2l s' = s_v2l s /\ s_l2v s' = s_l2v s /\ s_terms s' = s_terms s /\
  (forall id nd, find_node s id = Some nd -> find_node s' id = Some nd) /\
  (forall r, ref_ok s r -> ref_ok s' r /\ forall k c0, semk s' k r c0 = semk s k r c0) /\
  (forall r, ref_ok s r -> forall av, tfun_of s' r av = tfun_of s r av) /\
  (forall h, In h (s_handles s) -> forall c0, sem_edge s' (snd h) c0 = sem_edge s (snd h) c0) /\
  (forall id, find_node s id = None -> ~ reachable s' (handle_refs s') (RN id)) /\
  (forall r, reachable s' (handle_refs s') r <-> reachable s (handle_refs s) r).
Proof. exact intact_t_elim. Qed.

(** *** no panic, no divergence *)
Theorem tdd_no_panic : forall gt C cget cadd, lossy cget cadd ->
  forall cap fuel s (c : C) k,
  TdOK s -> TCacheOK cget s c -> tcall_ok s k -> S (nlevels s) <= fuel ->
  trun_c gt C cget cadd cap fuel s c k <> GStuck.
Proof.
  intros gt C cget cadd Hlossy cap fuel s c k B O Hk Hfuel.
  apply (fam_no_panic (tfam_rs gt C cget cadd fuel)
           cap tt s c k (conj Hlossy (conj B (conj O (conj Hk Hfuel))))).
Qed.

(** *** exactness: the bounded run delivers the result of the unbounded run
    exactly when its table fits, and fails - leaving a safe table, store full -
    otherwise *)
Theorem tdd_exact : forall gt C cget cadd, lossy cget cadd ->
  forall cap fuel s (c : C) k,
  TdOK s -> TCacheOK cget s c -> tcall_ok s k -> S (nlevels s) <= fuel ->
  exists su cu ru, trun_u gt C cget cadd fuel s c k = Some (su, cu, ru) /\
    tcall_spec s k su ru /\
    (node_count su <= Nat.max cap (node_count s) ->
       trun_c gt C cget cadd cap fuel s c k = GOk su cu ru) /\
    (Nat.max cap (node_count s) < node_count su ->
       exists s' c', trun_c gt C cget cadd cap fuel s c k = GOom s' c' /\
         TdOK s' /\ TCacheOK cget s' c' /\ extends s s' /\ intact_t s s' /\
         node_count s <= node_count s' /\ cap <= node_count s').
Proof.
  intros gt C cget cadd Hlossy cap fuel s c k B O Hk Hfuel.
  exact (fam_exact (tfam_sim gt C cget cadd fuel) (tfam_rs gt C cget cadd fuel) (tfam_u_ok gt C cget cadd fuel)
           (tfam_failed C cget cadd fuel) cap tt s c k (conj Hlossy (conj B (conj O (conj Hk Hfuel))))).
Qed.

(** ** Variable creation: one insertion.  On failure no table is returned: the
    manager is untouched. *)

Theorem tdd_var_exact : forall cap s v, TdOK s -> v < nlevels s ->
  exists s' r, td_var s v = Some (s', r) /\ TdOK s' /\ extends s s' /\ intact_t s s' /\ ref_ok s' r /\
    (forall av, tfun_of s' r av = av v) /\
    (node_count s' <= Nat.max cap (node_count s) -> td_var_cap cap s v = Some (Some (s', r))) /\
    (Nat.max cap (node_count s) < node_count s' ->
       td_var_cap cap s v = Some None /\ cap <= node_count s).
Proof.
  intros cap s v B Hv.
  destruct (td_var_tfun s v B Hv) as [s' [r [Ev [B' [X [R V]]]]]].
  exists s', r. split; [exact Ev|]. split; [exact B'|]. split; [exact X|].
  split; [apply (extends_intact_t s s' B X)|]. split; [exact R|]. split; [exact V|].
  apply (leaf1_exact ref cap s). rewrite <- Ev. apply td_var_cap_sim.
Qed.

Theorem tdd_var_never_wrong : forall cap s v s' r,
  td_var_cap cap s v = Some (Some (s', r)) -> td_var s v = Some (s', r).
Proof. intros cap s v s' r. apply (leaf1_never_wrong ref cap s _ _ s' r (td_var_cap_sim cap s v)). Qed.

(** a variable that does not exist / a missing terminal: the code panics in
    both models alike; out of memory is never reported for it *)
Theorem tdd_var_stuck_iff : forall cap s v, td_var_cap cap s v = None <-> td_var s v = None.
Proof.
  intros cap s v. pose proof (td_var_cap_sim cap s v) as M.
  destruct (td_var s v) as [u|]; [|tauto].
  destruct M as [o [Eo _]]. rewrite Eo. split; discriminate.
Qed.

(** ** The instances the correspondence run evaluates (no cache, standard fuel):
    the hypotheses are the two checkers the driver evaluates on every snapshot *)

Lemma trun_nc_eq : forall cap s,
  (forall f, trun_nc cap s (TCNot f) = tnot_nc cap s f) /\
  (forall op f g, trun_nc cap s (TCBin op f g) = tbin_nc cap s op f g) /\
  (forall f g h, trun_nc cap s (TCIte f g h) = tite_nc cap s f g h).
Proof. intros. repeat split. Qed.

Theorem tdd_nc_exact : forall cap s k, td_ok_b s = true -> tcall_ok_b s k = true ->
  trun_nc cap s k <> GStuck /\
  exists su cu ru, trun_unc s k = Some (su, cu, ru) /\
    td_ok_b su = true /\ tcall_spec s k su ru /\
    (node_count su <= Nat.max cap (node_count s) -> trun_nc cap s k = GOk su cu ru) /\
    (Nat.max cap (node_count s) < node_count su ->
       exists s' c', trun_nc cap s k = GOom s' c' /\
         td_ok_b s' = true /\ extends s s' /\ intact_t s s' /\
         node_count s <= node_count s' /\ cap <= node_count s').
Proof.
  intros cap s k Hb Hk. apply td_ok_b_spec in Hb. apply tcall_ok_b_spec in Hk.
  split; [apply (tdd_no_panic gt_none unit nc_get nc_add nc_lossy cap _ s tt k Hb (tnc_ok s tt) Hk (le_n _))|].
  destruct (tdd_exact gt_none unit nc_get nc_add nc_lossy cap _ s tt k Hb (tnc_ok s tt) Hk (le_n _))
    as [su [cu [ru [E [V [A B]]]]]].
  exists su, cu, ru. split; [exact E|].
  destruct (trun_u_ok gt_none unit nc_get nc_add nc_lossy _ s tt k Hb (tnc_ok s tt) Hk (le_n _))
    as [s1 [c1 [r1 [E1 [B1 _]]]]].
  unfold trun_unc in E. rewrite E in E1. inversion E1; subst s1 c1 r1.
  split; [apply td_ok_b_spec; exact B1|]. split; [exact V|]. split; [exact A|].
  intros Hbig. destruct (B Hbig) as [s' [c' [E' [B' [_ [X' [I' [G' F']]]]]]]].
  exists s', c'. split; [exact E'|]. split; [apply td_ok_b_spec; exact B'|]. auto.
Qed.
