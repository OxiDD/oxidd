(** * Out-of-memory behaviour of the ZBDD apply algorithms (Mgr/OomZbdd.v), part 1

    Facts that need no invariant (every table, cache, fuel, capacity, recursor,
    operand order): [z*_sim] - when the bounded algorithm returns [GOk s' c' r]
    the unbounded algorithm of DD/ZbddOps.v / DD/ZbddBool.v returns literally
    [Some (s', c', r)] and at most [cap] nodes are stored unless nothing was
    inserted; when it returns [GOom s' c'] no node has disappeared and the store
    is full; when the unbounded algorithm returns a table that fits, the bounded
    one returns exactly that result.  The invariant-dependent part is in
    Mgr/OomZbddSafe.v. *)

From Coq Require Import List NArith PArith Bool Arith Lia FMapPositive.
From OxiVerif Require Import DD.Table DD.TableProofs DD.Sem DD.Build DD.BuildProofs
  DD.Apply DD.FamSpec DD.ZbddOps DD.ZbddBool Mgr.Oom Mgr.OomProofs.
From OxiVerif Require Import Mgr.OomGen Mgr.OomGenProofs Mgr.OomBcddProofs Mgr.OomZbdd.
Import ListNotations.

(** two recursive results as a pair of edges, then [reduce] (the shape of the
    [Eq] arm of [zapply_ite]) *)
Definition ujoin2p {C : Type} (u1 : option (snap * C * ref)) (urun2 : snap -> C -> option (snap * C * ref))
  : option (snap * C * ref * ref) :=
  match u1 with
  | None => None
  | Some (s1, c1, hi) =>
    match urun2 s1 c1 with
    | None => None
    | Some (s2, c2, lo) => Some (s2, c2, hi, lo)
    end
  end.

Definition upair_fin {C R : Type} (x : option (snap * C * ref * ref))
  (k : snap -> C -> ref -> ref -> option (snap * C * R)) : option (snap * C * R) :=
  match x with
  | None => None
  | Some (s2, c2, hi, lo) => k s2 c2 hi lo
  end.

Lemma upair_fuse : forall C R (u1 : option (snap * C * ref)) urun2 (k : snap -> C -> ref -> ref -> option (snap * C * R)),
  upair_fin (ujoin2p u1 urun2) k = ujoin2 u1 urun2 k.
Proof.
  intros C R u1 urun2 k. unfold upair_fin, ujoin2p, ujoin2.
  destruct u1 as [[[s1 c1] hi]|]; [|reflexivity].
  destruct (urun2 s1 c1) as [[[s2 c2] lo]|]; reflexivity.
Qed.

Section Sim.
Variable gt : ref -> ref -> bool.
Variable C : Type.
Variable cget : C -> N -> list ref -> list nat -> option ref.
Variable cadd : C -> N -> list ref -> list nat -> ref -> C.
Variable cap : nat.
Variable par : nat -> bool.

Notation SIM := (sim C no_m2 cap 1).

Lemma zmk_node_leaf : forall s lvl hi lo,
  leaf_rel no_m2 cap 1 s (zmk_node_cap cap s lvl hi lo) (zmk_node s lvl hi lo).
Proof.
  intros s lvl hi lo. unfold zmk_node_cap, zmk_node.
  destruct (is_empty_b s hi); [apply leaf_same|].
  apply (leaf_map no_m2 cap 1 edge ref s _ _ (fun e => eref e)).
  apply goi_leaf. exact no_m2_terms.
Qed.

(** the unbounded counterpart of [zfin_c] *)
Definition zufin (s1 : snap) (c1 : C) (lvl : nat) (hi lo : ref) : option (snap * C * ref) :=
  ufin (zmk_node s1 lvl hi lo) (fun _ => c1) (fun h => h).

Lemma zfin_sim : forall s1 c1 lvl hi lo, SIM s1 (zfin_c C cap s1 c1 lvl hi lo) (zufin s1 c1 lvl hi lo).
Proof. intros. apply gfin_sim. apply zmk_node_leaf. Qed.

(** ** Unfolding lemmas *)

Lemma zapply_c_S : forall n s c op f g,
  zapply_c gt C cget cadd cap par (S n) s c op f g =
    match zterminal s op f g with
    | ZTFail => GStuck
    | ZTDone r => GOk s c r
    | ZTGo =>
      let '(f, g) := if zcommutes op && gt f g then (g, f) else (f, g) in
      match cget c (zop_code op) [f; g] [] with
      | Some h => GOk s c h
      | None =>
        match zget s f, zget s g with
        | Some fnode, Some gnode =>
          let res :=
            match lcmp (vlevel fnode) (vlevel gnode) with
            | Lt =>
              match zkids fnode, vlevel fnode with
              | Some (fhi, flo), Some flevel =>
                match op with
                | ZUnion | ZDiff =>
                  gbind (zapply_c gt C cget cadd cap par n s c op flo g) (fun s1 c1 lo => zfin_c C cap s1 c1 flevel fhi lo)
                | ZIntsec => zapply_c gt C cget cadd cap par n s c op flo g
                end
              | _, _ => GStuck
              end
            | Eq =>
              match zkids fnode, zkids gnode, vlevel fnode with
              | Some (fhi, flo), Some (ghi, glo), Some flevel =>
                gjoin2 (par n) (zapply_c gt C cget cadd cap par n s c op fhi ghi)
                  (fun s1 c1 => zapply_c gt C cget cadd cap par n s1 c1 op flo glo)
                  (fun s2 c2 hi lo => zfin_c C cap s2 c2 flevel hi lo)
              | _, _, _ => GStuck
              end
            | Gt =>
              match zkids gnode, vlevel gnode with
              | Some (ghi, glo), Some glevel =>
                match op with
                | ZUnion =>
                  gbind (zapply_c gt C cget cadd cap par n s c op f glo) (fun s1 c1 lo => zfin_c C cap s1 c1 glevel ghi lo)
                | ZIntsec | ZDiff => zapply_c gt C cget cadd cap par n s c op f glo
                end
              | _, _ => GStuck
              end
            end in
          gbind res (fun s' c' h => GOk s' (cadd c' (zop_code op) [f; g] [] h) h)
        | _, _ => GStuck
        end
      end
    end.
Proof. reflexivity. Qed.

Lemma zsymm_c_S : forall n s c f g,
  zsymm_c gt C cget cadd cap par (S n) s c f g =
    match zempty s with
    | None => GStuck
    | Some empty =>
      if ref_eqb f g then GOk s c empty
      else if ref_eqb f empty then GOk s c g
      else if ref_eqb g empty then GOk s c f
      else
        let '(f, g) := if gt f g then (g, f) else (f, g) in
        match cget c zcode_symm [f; g] [] with
        | Some h => GOk s c h
        | None =>
          match zget s f, zget s g with
          | Some fnode, Some gnode =>
            let res :=
              match lcmp (vlevel fnode) (vlevel gnode) with
              | Lt =>
                match zkids fnode, vlevel fnode with
                | Some (fhi, flo), Some flevel =>
                  gbind (zsymm_c gt C cget cadd cap par n s c flo g) (fun s1 c1 lo => zfin_c C cap s1 c1 flevel fhi lo)
                | _, _ => GStuck
                end
              | Eq =>
                match zkids fnode, zkids gnode, vlevel fnode with
                | Some (fhi, flo), Some (ghi, glo), Some flevel =>
                  gjoin2 (par n) (zsymm_c gt C cget cadd cap par n s c fhi ghi)
                    (fun s1 c1 => zsymm_c gt C cget cadd cap par n s1 c1 flo glo)
                    (fun s2 c2 hi lo => zfin_c C cap s2 c2 flevel hi lo)
                | _, _, _ => GStuck
                end
              | Gt =>
                match zkids gnode, vlevel gnode with
                | Some (ghi, glo), Some glevel =>
                  gbind (zsymm_c gt C cget cadd cap par n s c f glo) (fun s1 c1 lo => zfin_c C cap s1 c1 glevel ghi lo)
                | _, _ => GStuck
                end
              end in
            gbind res (fun s' c' h => GOk s' (cadd c' zcode_symm [f; g] [] h) h)
          | _, _ => GStuck
          end
        end
    end.
Proof. reflexivity. Qed.

(** the part of [apply_ite] after the terminal cases and the cache lookup *)
Definition zite_rec_u (ITE : snap -> C -> ref -> ref -> ref -> option (snap * C * ref))
    (APP : snap -> C -> zop -> ref -> ref -> option (snap * C * ref))
    (s : snap) (c : C) (f g h : ref) (fnode gnode hnode : zview) : option (snap * C * ref) :=
  let flevel := vlevel fnode in
  let glevel := vlevel gnode in
  let hlevel := vlevel hnode in
  let ghlevel := lmin glevel hlevel in
  let level := lmin flevel ghlevel in
  match lcmp flevel ghlevel with
  | Gt =>
    match lcmp glevel hlevel with
    | Lt =>
      match zkids gnode with
      | Some (_, glo) => ITE s c f glo h
      | None => None
      end
    | cmp =>
      match zkids hnode, level with
      | Some (hhi, hlo), Some lv =>
        let g' :=
          match cmp with
          | Eq => match zkids gnode with Some (_, glo) => Some glo | None => None end
          | _ => Some g
          end in
        match g' with
        | None => None
        | Some g' => ubind (ITE s c f g' hlo) (fun s1 c1 lo => zufin s1 c1 lv hhi lo)
        end
      | _, _ => None
      end
    end
  | Lt =>
    match zkids fnode with
    | Some (_, flo) => ITE s c flo g h
    | None => None
    end
  | Eq =>
    match zkids fnode, level with
    | Some (fhi, flo), Some lv =>
      upair_fin
        (match lcmp hlevel flevel with
         | Gt =>
           match zkids gnode with
           | Some (ghi, glo) => ujoin2p (APP s c ZIntsec fhi ghi) (fun s1 c1 => ITE s1 c1 flo glo h)
           | None => None
           end
         | _ =>
           match lcmp glevel flevel with
           | Gt =>
             match zkids hnode with
             | Some (hhi, hlo) => ujoin2p (APP s c ZDiff hhi fhi) (fun s1 c1 => ITE s1 c1 flo g hlo)
             | None => None
             end
           | _ =>
             match zkids gnode, zkids hnode with
             | Some (ghi, glo), Some (hhi, hlo) =>
               ujoin2p (ITE s c fhi ghi hhi) (fun s1 c1 => ITE s1 c1 flo glo hlo)
             | _, _ => None
             end
           end
         end)
        (fun s2 c2 hi lo => zufin s2 c2 lv hi lo)
    | _, _ => None
    end
  end.

Definition zite_rec_c (p : bool) (ITE : snap -> C -> ref -> ref -> ref -> zres_c C)
    (APP : snap -> C -> zop -> ref -> ref -> zres_c C)
    (s : snap) (c : C) (f g h : ref) (fnode gnode hnode : zview) : zres_c C :=
  let flevel := vlevel fnode in
  let glevel := vlevel gnode in
  let hlevel := vlevel hnode in
  let ghlevel := lmin glevel hlevel in
  let level := lmin flevel ghlevel in
  match lcmp flevel ghlevel with
  | Gt =>
    match lcmp glevel hlevel with
    | Lt =>
      match zkids gnode with
      | Some (_, glo) => ITE s c f glo h
      | None => GStuck
      end
    | cmp =>
      match zkids hnode, level with
      | Some (hhi, hlo), Some lv =>
        let g' :=
          match cmp with
          | Eq => match zkids gnode with Some (_, glo) => Some glo | None => None end
          | _ => Some g
          end in
        match g' with
        | None => GStuck
        | Some g' => gbind (ITE s c f g' hlo) (fun s1 c1 lo => zfin_c C cap s1 c1 lv hhi lo)
        end
      | _, _ => GStuck
      end
    end
  | Lt =>
    match zkids fnode with
    | Some (_, flo) => ITE s c flo g h
    | None => GStuck
    end
  | Eq =>
    match zkids fnode, level with
    | Some (fhi, flo), Some lv =>
      let fin := fun s2 c2 hi lo => zfin_c C cap s2 c2 lv hi lo in
      match lcmp hlevel flevel with
      | Gt =>
        match zkids gnode with
        | Some (ghi, glo) => gjoin2 p (APP s c ZIntsec fhi ghi) (fun s1 c1 => ITE s1 c1 flo glo h) fin
        | None => GStuck
        end
      | _ =>
        match lcmp glevel flevel with
        | Gt =>
          match zkids hnode with
          | Some (hhi, hlo) => gjoin2 p (APP s c ZDiff hhi fhi) (fun s1 c1 => ITE s1 c1 flo g hlo) fin
          | None => GStuck
          end
        | _ =>
          match zkids gnode, zkids hnode with
          | Some (ghi, glo), Some (hhi, hlo) =>
            gjoin2 p (ITE s c fhi ghi hhi) (fun s1 c1 => ITE s1 c1 flo glo hlo) fin
          | _, _ => GStuck
          end
        end
      end
    | _, _ => GStuck
    end
  end.

Lemma zapply_ite_c_S : forall n s c f g h,
  zapply_ite_c gt C cget cadd cap par (S n) s c f g h =
    if ref_eqb g h then GOk s c g
    else if ref_eqb f g then zapply_c gt C cget cadd cap par (S n) s c ZUnion f h
    else if ref_eqb f h then zapply_c gt C cget cadd cap par (S n) s c ZIntsec f g
    else
      match zget s f with
      | None => GStuck
      | Some fnode =>
        if is_empty_b s f then GOk s c h
        else
          match zget s g with
          | None => GStuck
          | Some gnode =>
            if is_empty_b s g then zapply_c gt C cget cadd cap par (S n) s c ZDiff h f
            else
              match zget s h with
              | None => GStuck
              | Some hnode =>
                if is_empty_b s h then zapply_c gt C cget cadd cap par (S n) s c ZIntsec f g
                else
                  match ztaut_opt s (lmin (vlevel fnode) (lmin (vlevel gnode) (vlevel hnode))) with
                  | None => GStuck
                  | Some taut =>
                    if ref_eqb f taut then GOk s c g
                    else if ref_eqb g taut then zapply_c gt C cget cadd cap par (S n) s c ZUnion f h
                    else
                      match cget c zcode_ite [f; g; h] [] with
                      | Some r => GOk s c r
                      | None =>
                        gbind (zite_rec_c (par n) (zapply_ite_c gt C cget cadd cap par n)
                                 (zapply_c gt C cget cadd cap par (S n)) s c f g h fnode gnode hnode)
                              (fun s' c' r => GOk s' (cadd c' zcode_ite [f; g; h] [] r) r)
                      end
                  end
              end
          end
      end.
Proof. reflexivity. Qed.

(** ** The walks *)

Theorem zapply_sim : forall fuel s c op f g,
  SIM s (zapply_c gt C cget cadd cap par fuel s c op f g) (zapply gt C cget cadd fuel s c op f g).
Proof.
  induction fuel as [|n IH]; intros s c op f g; [apply sim_stuck|].
  rewrite zapply_c_S. cbn [zapply].
  destruct (zterminal s op f g) as [|r|]; [apply sim_stuck | apply sim_here |].
  destruct (if zcommutes op && gt f g then (g, f) else (f, g)) as [f' g'].
  destruct (cget c (zop_code op) [f'; g'] []); [apply sim_here|].
  destruct (zget s f') as [fnode|]; [|apply sim_stuck].
  destruct (zget s g') as [gnode|]; [|apply sim_stuck].
  (* the unbounded algorithm is convertible to the [ubind] / [ujoin2] / [zufin] shape *)
  cbv zeta.
  apply (gbind_sim C no_m2 cap 1 ref ref s _ _ _ (fun s' c' h => Some (s', cadd c' (zop_code op) [f'; g'] [] h, h)));
    [|intros; apply sim_here].
  destruct (lcmp (vlevel fnode) (vlevel gnode)).
  - destruct (zkids fnode) as [[fhi flo]|]; [|apply sim_stuck].
    destruct (zkids gnode) as [[ghi glo]|]; [|apply sim_stuck].
    destruct (vlevel fnode) as [flevel|]; [|apply sim_stuck].
    apply (gjoin2_sim C no_m2 cap 1 ref ref ref (par n) s _ _ _ (fun s1 c1 => zapply gt C cget cadd n s1 c1 op flo glo) _
             (fun s2 c2 hi lo => zufin s2 c2 flevel hi lo));
      [apply IH | intros; apply IH | intros; apply zfin_sim].
  - destruct (zkids fnode) as [[fhi flo]|]; [|apply sim_stuck].
    destruct (vlevel fnode) as [flevel|]; [|apply sim_stuck].
    destruct op; [|apply IH|];
      (apply (gbind_sim C no_m2 cap 1 ref ref s _ _ _ (fun s1 c1 lo => zufin s1 c1 flevel fhi lo));
       [apply IH | intros; apply zfin_sim]).
  - destruct (zkids gnode) as [[ghi glo]|]; [|apply sim_stuck].
    destruct (vlevel gnode) as [glevel|]; [|apply sim_stuck].
    destruct op; [|apply IH|apply IH].
    apply (gbind_sim C no_m2 cap 1 ref ref s _ _ _ (fun s1 c1 lo => zufin s1 c1 glevel ghi lo));
      [apply IH | intros; apply zfin_sim].
Qed.

Theorem zapply_not_sim : forall fuel s c f,
  SIM s (zapply_not_c gt C cget cadd cap par fuel s c f) (zapply_not gt C cget cadd fuel s c f).
Proof.
  intros. unfold zapply_not_c, zapply_not. destruct (ztaut s 0); [apply zapply_sim | apply sim_stuck].
Qed.

Theorem zsymm_sim : forall fuel s c f g,
  SIM s (zsymm_c gt C cget cadd cap par fuel s c f g) (zsymm gt C cget cadd fuel s c f g).
Proof.
  induction fuel as [|n IH]; intros s c f g; [apply sim_stuck|].
  rewrite zsymm_c_S. cbn [zsymm].
  destruct (zempty s) as [empty|]; [|apply sim_stuck].
  destruct (ref_eqb f g); [apply sim_here|].
  destruct (ref_eqb f empty); [apply sim_here|].
  destruct (ref_eqb g empty); [apply sim_here|].
  destruct (if gt f g then (g, f) else (f, g)) as [f' g'].
  destruct (cget c zcode_symm [f'; g'] []); [apply sim_here|].
  destruct (zget s f') as [fnode|]; [|apply sim_stuck].
  destruct (zget s g') as [gnode|]; [|apply sim_stuck].
  cbv zeta.
  apply (gbind_sim C no_m2 cap 1 ref ref s _ _ _ (fun s' c' h => Some (s', cadd c' zcode_symm [f'; g'] [] h, h)));
    [|intros; apply sim_here].
  destruct (lcmp (vlevel fnode) (vlevel gnode)).
  - destruct (zkids fnode) as [[fhi flo]|]; [|apply sim_stuck].
    destruct (zkids gnode) as [[ghi glo]|]; [|apply sim_stuck].
    destruct (vlevel fnode) as [flevel|]; [|apply sim_stuck].
    apply (gjoin2_sim C no_m2 cap 1 ref ref ref (par n) s _ _ _ (fun s1 c1 => zsymm gt C cget cadd n s1 c1 flo glo) _
             (fun s2 c2 hi lo => zufin s2 c2 flevel hi lo));
      [apply IH | intros; apply IH | intros; apply zfin_sim].
  - destruct (zkids fnode) as [[fhi flo]|]; [|apply sim_stuck].
    destruct (vlevel fnode) as [flevel|]; [|apply sim_stuck].
    apply (gbind_sim C no_m2 cap 1 ref ref s _ _ _ (fun s1 c1 lo => zufin s1 c1 flevel fhi lo));
      [apply IH | intros; apply zfin_sim].
  - destruct (zkids gnode) as [[ghi glo]|]; [|apply sim_stuck].
    destruct (vlevel gnode) as [glevel|]; [|apply sim_stuck].
    apply (gbind_sim C no_m2 cap 1 ref ref s _ _ _ (fun s1 c1 lo => zufin s1 c1 glevel ghi lo));
      [apply IH | intros; apply zfin_sim].
Qed.

Lemma zite_rec_sim : forall p (ITE : snap -> C -> ref -> ref -> ref -> zres_c C) uITE
    (APP : snap -> C -> zop -> ref -> ref -> zres_c C) uAPP,
  (forall s c f g h, SIM s (ITE s c f g h) (uITE s c f g h)) ->
  (forall s c o f g, SIM s (APP s c o f g) (uAPP s c o f g)) ->
  forall s c f g h fnode gnode hnode,
    SIM s (zite_rec_c p ITE APP s c f g h fnode gnode hnode) (zite_rec_u uITE uAPP s c f g h fnode gnode hnode).
Proof.
  intros p ITE uITE APP uAPP HI HA s c f g h fnode gnode hnode. unfold zite_rec_c, zite_rec_u. cbv zeta.
  destruct (lcmp (vlevel fnode) (lmin (vlevel gnode) (vlevel hnode))).
  - (* Eq *)
    destruct (zkids fnode) as [[fhi flo]|]; [|apply sim_stuck].
    destruct (lmin (vlevel fnode) (lmin (vlevel gnode) (vlevel hnode))) as [lv|]; [|apply sim_stuck].
    assert (J : forall r1 u1 (run2 : snap -> C -> zres_c C) urun2,
              SIM s r1 u1 -> (forall s1 c1, SIM s1 (run2 s1 c1) (urun2 s1 c1)) ->
              SIM s (gjoin2 p r1 run2 (fun s2 c2 hi lo => zfin_c C cap s2 c2 lv hi lo))
                    (upair_fin (ujoin2p u1 urun2) (fun s2 c2 hi lo => zufin s2 c2 lv hi lo))).
    { intros r1 u1 run2 urun2 H1 H2. rewrite upair_fuse.
      apply gjoin2_sim; [exact H1 | exact H2 | intros; apply zfin_sim]. }
    destruct (lcmp (vlevel hnode) (vlevel fnode)).
    + destruct (lcmp (vlevel gnode) (vlevel fnode)).
      * destruct (zkids gnode) as [[ghi glo]|]; [|apply sim_stuck].
        destruct (zkids hnode) as [[hhi hlo]|]; [|apply sim_stuck]. apply J; intros; apply HI.
      * destruct (zkids gnode) as [[ghi glo]|]; [|apply sim_stuck].
        destruct (zkids hnode) as [[hhi hlo]|]; [|apply sim_stuck]. apply J; intros; apply HI.
      * destruct (zkids hnode) as [[hhi hlo]|]; [|apply sim_stuck]. apply J; [apply HA | intros; apply HI].
    + destruct (lcmp (vlevel gnode) (vlevel fnode)).
      * destruct (zkids gnode) as [[ghi glo]|]; [|apply sim_stuck].
        destruct (zkids hnode) as [[hhi hlo]|]; [|apply sim_stuck]. apply J; intros; apply HI.
      * destruct (zkids gnode) as [[ghi glo]|]; [|apply sim_stuck].
        destruct (zkids hnode) as [[hhi hlo]|]; [|apply sim_stuck]. apply J; intros; apply HI.
      * destruct (zkids hnode) as [[hhi hlo]|]; [|apply sim_stuck]. apply J; [apply HA | intros; apply HI].
    + destruct (zkids gnode) as [[ghi glo]|]; [|apply sim_stuck]. apply J; [apply HA | intros; apply HI].
  - (* Lt *)
    destruct (zkids fnode) as [[fhi flo]|]; [apply HI | apply sim_stuck].
  - (* Gt *)
    destruct (lcmp (vlevel gnode) (vlevel hnode)).
    + destruct (zkids hnode) as [[hhi hlo]|]; [|apply sim_stuck].
      destruct (lmin (vlevel fnode) (lmin (vlevel gnode) (vlevel hnode))) as [lv|]; [|apply sim_stuck].
      destruct (zkids gnode) as [[ghi glo]|]; [|apply sim_stuck].
      apply gbind_sim; [apply HI | intros; apply zfin_sim].
    + destruct (zkids gnode) as [[ghi glo]|]; [apply HI | apply sim_stuck].
    + destruct (zkids hnode) as [[hhi hlo]|]; [|apply sim_stuck].
      destruct (lmin (vlevel fnode) (lmin (vlevel gnode) (vlevel hnode))) as [lv|]; [|apply sim_stuck].
      apply gbind_sim; [apply HI | intros; apply zfin_sim].
Qed.

Theorem zapply_ite_sim : forall fuel s c f g h,
  SIM s (zapply_ite_c gt C cget cadd cap par fuel s c f g h) (zapply_ite gt C cget cadd fuel s c f g h).
Proof.
  induction fuel as [|n IH]; intros s c f g h; [apply sim_stuck|].
  rewrite zapply_ite_c_S. cbn [zapply_ite].
  destruct (ref_eqb g h); [apply sim_here|].
  destruct (ref_eqb f g); [apply zapply_sim|].
  destruct (ref_eqb f h); [apply zapply_sim|].
  destruct (zget s f) as [fnode|]; [|apply sim_stuck].
  destruct (is_empty_b s f); [apply sim_here|].
  destruct (zget s g) as [gnode|]; [|apply sim_stuck].
  destruct (is_empty_b s g); [apply zapply_sim|].
  destruct (zget s h) as [hnode|]; [|apply sim_stuck].
  destruct (is_empty_b s h); [apply zapply_sim|].
  destruct (ztaut_opt s _) as [taut|]; [|apply sim_stuck].
  destruct (ref_eqb f taut); [apply sim_here|].
  destruct (ref_eqb g taut); [apply zapply_sim|].
  destruct (cget c zcode_ite [f; g; h] []); [apply sim_here|].
  (* the rest of the unbounded algorithm is convertible to [ubind (zite_rec_u ..) ..] *)
  apply (gbind_sim C no_m2 cap 1 ref ref s _ _ _ (fun s' c' r => Some (s', cadd c' zcode_ite [f; g; h] [] r, r)));
    [|intros; apply sim_here].
  apply (zite_rec_sim (par n) _ (zapply_ite gt C cget cadd n) _ (zapply gt C cget cadd (S n)));
    [intros; apply IH | intros; apply zapply_sim].
Qed.

Theorem zapply_op_sim : forall op fuel s c f g,
  SIM s (zapply_op_c gt C cget cadd cap par fuel s c op f g) (zapply_op gt C cget cadd fuel s c op f g).
Proof.
  intros op fuel s c f g.
  assert (TN : forall r u, SIM s r u ->
            SIM s (gbind r (fun s1 c1 x => zapply_not_c gt C cget cadd cap par fuel s1 c1 x))
                  (match u with Some (s1, c1, x) => zapply_not gt C cget cadd fuel s1 c1 x | None => None end)).
  { intros r u H. apply (gbind_sim C no_m2 cap 1 ref ref s r u _
                          (fun s1 c1 x => zapply_not gt C cget cadd fuel s1 c1 x) H).
    intros; apply zapply_not_sim. }
  destruct op; unfold zapply_op_c, zapply_op;
    try apply zapply_sim; try apply zsymm_sim; try (apply TN; first [apply zapply_sim | apply zsymm_sim]).
  destruct (ztaut s 0); [apply zapply_ite_sim | apply sim_stuck].
Qed.

End Sim.

(** ** [singleton_edge], [make_node] *)

Lemma zsingleton_cap_sim : forall cap s var, leaf1 cap s (zsingleton_cap cap s var) (zsingleton s var).
Proof.
  intros cap s var. unfold leaf1, zsingleton, zsingleton_cap.
  destruct (zbase s) as [hi|]; [|reflexivity].
  destruct (zempty s) as [lo|]; [|reflexivity].
  destruct (nth_error (s_v2l s) var) as [lvl|]; [|reflexivity].
  pose proof (goi_leaf no_m2 no_m2_terms cap 1 s lvl [E hi; E lo]) as L.
  pose proof (leaf_map no_m2 cap 1 edge ref s _ _ (fun e => eref e) L) as L'.
  destruct (get_or_insert s lvl [E hi; E lo]) as [s' e] eqn:Eg.
  destruct (get_or_insert_cap cap s lvl [E hi; E lo]) as [[s2 e2]|]; eexists; split; try reflexivity; exact L'.
Qed.

Lemma zmake_node_cap_sim : forall cap s var hi lo,
  match zmake_node s var hi lo with
  | Some u => exists o, zmake_node_cap cap s var hi lo = Some o /\ leaf_rel no_m2 cap 1 s o u
  | None => zmake_node_cap cap s var hi lo = None
  end.
Proof.
  intros cap s var hi lo. unfold zmake_node, zmake_node_cap.
  destruct (zget s var) as [[v|nd]|]; try reflexivity.
  eexists. split; [reflexivity | apply zmk_node_leaf].
Qed.
