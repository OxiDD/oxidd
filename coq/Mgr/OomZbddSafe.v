(** * Out-of-memory behaviour of the ZBDD apply algorithms (Mgr/OomZbdd.v), part 2

    Under the invariant of the C02 / C09 theorems for ZBDDs ([ZbddOK], the
    tautology chain [ZChainOK], [ZCacheOKB], operands are valid references,
    standard fuel): [z*_c_safe] - the bounded algorithms never get stuck, and
    whatever they return - result or out-of-memory - the table they leave is a
    well-formed ZBDD table (with its tautology chain) extending the one they
    started from, with a correct cache.  The C14 statements are in
    Mgr/OomZbddThms.v. *)

From Coq Require Import List NArith PArith Bool Arith Lia FMapPositive.
From OxiVerif Require Import DD.Table DD.TableProofs DD.Canon DD.Sem DD.Build DD.BuildProofs
  DD.Apply DD.FamSpec DD.ZbddOps DD.ZbddOpsProofs DD.ZbddBool DD.ZbddBoolProofs DD.ZbddXorProofs DD.ZbddIteProofs
  Mgr.Oom Mgr.OomProofs.
From OxiVerif Require Import Mgr.OomGen Mgr.OomGenProofs Mgr.OomBcddProofs Mgr.OomZbdd Mgr.OomZbddProofs.
Import ListNotations.

(** ** Structure of the operands *)

Lemma znode_struct : forall s id nd, ZbddOK s -> find_node s id = Some nd ->
  nstored nd = nlevel nd /\ nlevel nd < nlevels s /\ rlevel s (RN id) = nlevel nd /\
  exists hi lo, nchildren nd = [hi; lo] /\ ref_ok s (eref hi) /\ ref_ok s (eref lo) /\
    nlevel nd < rlevel s (eref hi) /\ nlevel nd < rlevel s (eref lo).
Proof.
  intros s id nd B En.
  assert (O : ref_ok s (RN id)) by (exists nd; exact En).
  destruct (zden_exists s (RN id) B O) as [P D].
  destruct (znode_facts s id nd P B D En) as (S1 & L1 & R1 & hi & lo & PA & PB & Ec & DA & DB & LA & LB & _).
  split; [exact S1|]. split; [exact L1|]. split; [exact R1|].
  exists hi, lo. split; [exact Ec|]. split; [apply (zden_ok _ _ _ DA)|]. split; [apply (zden_ok _ _ _ DB)|]. auto.
Qed.

(** the three-way level comparison of two distinct, non-Empty operands *)
Lemma zlevels_struct : forall s f g vf vg, ZbddOK s -> f <> g ->
  (forall t, f = RT t -> term_val s t = Some 1%N) -> (forall t, g = RT t -> term_val s t = Some 1%N) ->
  zget s f = Some vf -> zget s g = Some vg ->
  match lcmp (vlevel vf) (vlevel vg) with
  | Eq => exists fhi flo ghi glo L,
      zkids vf = Some (fhi, flo) /\ zkids vg = Some (ghi, glo) /\ vlevel vf = Some L /\
      L < nlevels s /\ rlevel s f = L /\ rlevel s g = L /\
      ref_ok s fhi /\ ref_ok s flo /\ ref_ok s ghi /\ ref_ok s glo /\
      L < rlevel s fhi /\ L < rlevel s flo /\ L < rlevel s ghi /\ L < rlevel s glo
  | Lt => exists fhi flo L,
      zkids vf = Some (fhi, flo) /\ vlevel vf = Some L /\ L < nlevels s /\ rlevel s f = L /\ L < rlevel s g /\
      ref_ok s fhi /\ ref_ok s flo /\ L < rlevel s fhi /\ L < rlevel s flo
  | Gt => exists ghi glo L,
      zkids vg = Some (ghi, glo) /\ vlevel vg = Some L /\ L < nlevels s /\ rlevel s g = L /\ L < rlevel s f /\
      ref_ok s ghi /\ ref_ok s glo /\ L < rlevel s ghi /\ L < rlevel s glo
  end.
Proof.
  intros s f g vf vg B Hne Hf1 Hg1 Evf Evg. pose proof (zo_wf s B) as H.
  pose proof (lcmp_cases s f g vf vg B Evf Evg) as Hl.
  destruct (lcmp (vlevel vf) (vlevel vg)).
  - destruct Hl as [(idf & ndf & idg & ndg & -> & -> & Enf & Eng & -> & -> & Hlev)|(tf & tg & -> & ->)].
    2:{ exfalso. apply Hne. f_equal. apply (term_val_inj s tf tg 1%N H (Hf1 tf eq_refl) (Hg1 tg eq_refl)). }
    destruct (znode_struct s idf ndf B Enf) as (Sf & Lf & Rf & fhi & flo & Ecf & Ofh & Ofl & LA & LB).
    destruct (znode_struct s idg ndg B Eng) as (Sg & Lg & Rg & ghi & glo & Ecg & Ogh & Ogl & LA' & LB').
    exists (eref fhi), (eref flo), (eref ghi), (eref glo), (nlevel ndf).
    simpl zkids. simpl vlevel. rewrite Ecf, Ecg, Sf. rewrite Rf, Rg.
    repeat (split; [first [reflexivity | assumption | lia]|]). lia.
  - destruct Hl as (idf & ndf & -> & Enf & -> & Hlt).
    destruct (znode_struct s idf ndf B Enf) as (Sf & Lf & Rf & fhi & flo & Ecf & Ofh & Ofl & LA & LB).
    exists (eref fhi), (eref flo), (nlevel ndf). simpl zkids. simpl vlevel. rewrite Ecf, Sf, Rf.
    repeat (split; [first [reflexivity | assumption | lia]|]). lia.
  - destruct Hl as (idg & ndg & -> & Eng & -> & Hlt).
    destruct (znode_struct s idg ndg B Eng) as (Sg & Lg & Rg & ghi & glo & Ecg & Ogh & Ogl & LA' & LB').
    exists (eref ghi), (eref glo), (nlevel ndg). simpl zkids. simpl vlevel. rewrite Ecg, Sg, Rg.
    repeat (split; [first [reflexivity | assumption | lia]|]). lia.
Qed.

Lemma zswap_struct : forall s (b : bool) f g, ref_ok s f -> ref_ok s g -> f <> g ->
  (forall t, f = RT t -> term_val s t = Some 1%N) -> (forall t, g = RT t -> term_val s t = Some 1%N) ->
  exists f' g',
    (if b then (g, f) else (f, g)) = (f', g') /\
    ref_ok s f' /\ ref_ok s g' /\ f' <> g' /\
    (forall t, f' = RT t -> term_val s t = Some 1%N) /\
    (forall t, g' = RT t -> term_val s t = Some 1%N) /\
    Nat.min (rlevel s f') (rlevel s g') = Nat.min (rlevel s f) (rlevel s g).
Proof.
  intros s b f g Of Og Hne Hf1 Hg1. destruct b.
  - exists g, f. repeat (split; [first [reflexivity | assumption | congruence]|]). apply Nat.min_comm.
  - exists f, g. repeat (split; [first [reflexivity | assumption]|]). reflexivity.
Qed.

Section Safe.
Variable gt : ref -> ref -> bool.
Variable C : Type.
Variable cget : C -> N -> list ref -> list nat -> option ref.
Variable cadd : C -> N -> list ref -> list nat -> ref -> C.
Hypothesis Hlossy : zlossy C cget cadd.
Variable cap : nat.
Variable par : nat -> bool.

Notation ZCacheOKB := (ZCacheOKB C cget).

Definition ZInv (s : snap) (c : C) : Prop := ZbddOK s /\ ZChainOK s /\ ZCacheOKB s c.
Definition Qref (s : snap) (r : ref) : Prop := ref_ok s r.

Notation RS := (res_safe ZInv extends Qref).
Notation FS := (fail_safe ZInv extends).

(** a result followed by the cache insertion *)
Lemma gbind_ok_fs : forall s (r : zres_c C) (kc : C -> ref -> C),
  FS s r -> FS s (gbind r (fun s' c' h => GOk s' (kc c' h) h)).
Proof. intros s [s' c' x|s' c'|] kc H; simpl in *; auto. Qed.

(** [reduce(..)?] never panics; on failure the table is the one it was given *)
Lemma zfin_c_fs : forall s c lvl hi lo, ZInv s c -> FS s (zfin_c C cap s c lvl hi lo).
Proof. intros. apply gfin_safe; [assumption | apply extends_refl]. Qed.

(** what the C02 / C09 theorems say of an unbounded result, in the form of [safe_by_sim] *)
Lemma zresultB_ex : forall s res R, ZbddOK s -> ZChainOK s -> zresult_okB C cget s res R ->
  exists s1 c1 r1, res = Some (s1, c1, r1) /\ ZInv s1 c1 /\ extends s s1 /\ Qref s1 r1.
Proof.
  intros s res R B Hch (s1 & c1 & r1 & E & B1 & X1 & O1 & D1). exists s1, c1, r1.
  split; [exact E|]. split; [|split; [exact X1 | apply (zden_ok _ _ _ D1)]].
  split; [exact B1|]. split; [apply (zchain_extends s s1 B B1 X1 Hch) | exact O1].
Qed.

Lemma zresultB_inv : forall s res R s' c' r, ZbddOK s -> ZChainOK s ->
  zresult_okB C cget s res R -> res = Some (s', c', r) ->
  ZInv s' c' /\ extends s s' /\ Qref s' r.
Proof.
  intros s res R s' c' r B Hch Ok Eq. destruct (zresultB_ex s res R B Hch Ok) as [s1 [c1 [r1 [E P]]]].
  rewrite E in Eq. inversion Eq; subst. exact P.
Qed.

(** ** [zapply_c]: union, intersection, difference *)

Theorem zapply_c_safe : forall op fuel s c f g,
  ZbddOK s -> ZChainOK s -> ZCacheOKB s c -> ref_ok s f -> ref_ok s g ->
  nlevels s - Nat.min (rlevel s f) (rlevel s g) < fuel ->
  RS s (zapply_c gt C cget cadd cap par fuel s c op f g).
Proof.
  intros op. induction fuel as [|n IH]; intros s c f g B Hch O Of Og Hfuel; [lia|].
  destruct (zden_exists s f B Of) as [P DF]. destruct (zden_exists s g B Og) as [Q DG].
  apply (safe_by_sim C no_m2 cap 1 ZInv extends ref Qref s _ _
           (zapply_sim gt C cget cadd cap par (S n) s c op f g)
           (zresultB_ex s _ (pbin op P Q) B Hch
              (zapply_okB gt C cget cadd Hlossy op (S n) s c f g P Q B O DF DG Hfuel))).
  rewrite zapply_c_S.
  pose proof (zterminal_ok s op f g P Q B DF DG) as Ht.
  destruct (zterminal s op f g) as [|r|]; [destruct Ht | exact I |].
  destruct Ht as [Hne [Hf1 Hg1]].
  destruct (zswap_struct s (zcommutes op && gt f g) f g Of Og Hne Hf1 Hg1)
    as (f' & g' & Esw & Of' & Og' & Hne' & Hf1' & Hg1' & Hmin).
  rewrite Esw. rewrite <- Hmin in Hfuel. clear Esw Hmin Hne Hf1 Hg1 DF DG P Q.
  pose proof (zo_wf s B) as H.
  destruct (cget c (zop_code op) [f'; g'] []); [exact I|].
  destruct (zget_total s f' Of') as [vf Evf]. destruct (zget_total s g' Og') as [vg Evg].
  rewrite Evf, Evg. cbv zeta. apply gbind_ok_fs.
  pose proof (zlevels_struct s f' g' vf vg B Hne' Hf1' Hg1' Evf Evg) as Hl.
  pose proof (rlevel_le s H f') as Lf'. pose proof (rlevel_le s H g') as Lg'.
  assert (Rec : forall s1 c1 x y, ZInv s1 c1 -> extends s s1 -> ref_ok s x -> ref_ok s y ->
            nlevels s - Nat.min (rlevel s x) (rlevel s y) < n ->
            RS s1 (zapply_c gt C cget cadd cap par n s1 c1 op x y)).
  { intros s1 c1 x y [B1 [Hch1 O1]] X1 Ox Oy Hn.
    apply IH; auto; [apply (ext_ref_ok _ _ _ X1 Ox) | apply (ext_ref_ok _ _ _ X1 Oy)|].
    rewrite (ext_nlevels _ _ X1), (ext_rlevel _ _ _ X1 Ox), (ext_rlevel _ _ _ X1 Oy). exact Hn. }
  assert (I0 : ZInv s c) by (split; [exact B | split; assumption]).
  destruct (lcmp (vlevel vf) (vlevel vg)).
  - destruct Hl as (fhi & flo & ghi & glo & L & -> & -> & -> & HL & Rf & Rg & Ofh & Ofl & Ogh & Ogl & L1 & L2 & L3 & L4).
    apply (gjoin2_safe C ZInv extends extends_trans ref ref ref Qref Qref).
    + apply (Rec s c fhi ghi I0 (extends_refl s) Ofh Ogh). lia.
    + intros s1 c1 I1 X1. apply (Rec s1 c1 flo glo I1 X1 Ofl Ogl). lia.
    + intros s2 c2 hi lo I2 X2. apply zfin_c_fs. exact I2.
  - destruct Hl as (fhi & flo & L & -> & -> & HL & Rf & Lg & Ofh & Ofl & L1 & L2).
    assert (R1 : RS s (zapply_c gt C cget cadd cap par n s c op flo g'))
      by (apply (Rec s c flo g' I0 (extends_refl s) Ofl Og'); lia).
    destruct op; [|apply (res_fail_safe C ZInv extends ref Qref); exact R1|];
      (apply (gbind_safe C ZInv extends extends_trans ref ref Qref); [exact R1|];
       intros s1 c1 x I1 X1 _; apply zfin_c_fs; exact I1).
  - destruct Hl as (ghi & glo & L & -> & -> & HL & Rg & Lf & Ogh & Ogl & L1 & L2).
    assert (R1 : RS s (zapply_c gt C cget cadd cap par n s c op f' glo))
      by (apply (Rec s c f' glo I0 (extends_refl s) Of' Ogl); lia).
    destruct op; [|apply (res_fail_safe C ZInv extends ref Qref); exact R1
                  |apply (res_fail_safe C ZInv extends ref Qref); exact R1].
    apply (gbind_safe C ZInv extends extends_trans ref ref Qref); [exact R1|].
    intros s1 c1 x I1 X1 _. apply zfin_c_fs. exact I1.
Qed.

(** ** [zapply_not_c] *)

Theorem zapply_not_c_safe : forall fuel s c f,
  ZbddOK s -> ZChainOK s -> ZCacheOKB s c -> ref_ok s f -> nlevels s < fuel ->
  RS s (zapply_not_c gt C cget cadd cap par fuel s c f).
Proof.
  intros fuel s c f B Hch O Of Hfuel. unfold zapply_not_c.
  destruct (ztaut_total s 0 Hch) as [t Et]. rewrite Et.
  pose proof (ztaut_den s 0 t B Et) as Dt.
  apply zapply_c_safe; auto; [apply (zden_ok _ _ _ Dt) | lia].
Qed.

(** ** [zsymm_c] *)

Theorem zsymm_c_safe : forall fuel s c f g,
  ZbddOK s -> ZChainOK s -> ZCacheOKB s c -> ref_ok s f -> ref_ok s g ->
  nlevels s - Nat.min (rlevel s f) (rlevel s g) < fuel ->
  RS s (zsymm_c gt C cget cadd cap par fuel s c f g).
Proof.
  induction fuel as [|n IH]; intros s c f g B Hch O Of Og Hfuel; [lia|].
  destruct (zden_exists s f B Of) as [P DF]. destruct (zden_exists s g B Og) as [Q DG].
  apply (safe_by_sim C no_m2 cap 1 ZInv extends ref Qref s _ _
           (zsymm_sim gt C cget cadd cap par (S n) s c f g)
           (zresultB_ex s _ (pxor P Q) B Hch
              (zsymm_ok gt C cget cadd Hlossy (S n) s c f g P Q B O DF DG Hfuel))).
  clear DF DG P Q.
  rewrite zsymm_c_S.
  destruct (zempty_spec s B) as [te [Ee Et]]. rewrite Ee.
  pose proof (zo_wf s B) as H.
  destruct (ref_eqb f g) eqn:E1; [exact I|].
  destruct (ref_eqb f (RT te)) eqn:E2; [exact I|].
  destruct (ref_eqb g (RT te)) eqn:E3; [exact I|].
  apply ref_eqb_false in E1. apply ref_eqb_false in E2. apply ref_eqb_false in E3.
  assert (Hf1 : forall t, f = RT t -> term_val s t = Some 1%N)
    by (intros t ->; apply (not_empty_base s te t B Et Of E2)).
  assert (Hg1 : forall t, g = RT t -> term_val s t = Some 1%N)
    by (intros t ->; apply (not_empty_base s te t B Et Og E3)).
  destruct (zswap_struct s (gt f g) f g Of Og E1 Hf1 Hg1)
    as (f' & g' & Esw & Of' & Og' & Hne' & Hf1' & Hg1' & Hmin).
  rewrite Esw. rewrite <- Hmin in Hfuel. clear Esw Hmin E1 E2 E3 Hf1 Hg1.
  destruct (cget c zcode_symm [f'; g'] []); [exact I|].
  destruct (zget_total s f' Of') as [vf Evf]. destruct (zget_total s g' Og') as [vg Evg].
  rewrite Evf, Evg. cbv zeta. apply gbind_ok_fs.
  pose proof (zlevels_struct s f' g' vf vg B Hne' Hf1' Hg1' Evf Evg) as Hl.
  pose proof (rlevel_le s H f') as Lf'. pose proof (rlevel_le s H g') as Lg'.
  assert (Rec : forall s1 c1 x y, ZInv s1 c1 -> extends s s1 -> ref_ok s x -> ref_ok s y ->
            nlevels s - Nat.min (rlevel s x) (rlevel s y) < n ->
            RS s1 (zsymm_c gt C cget cadd cap par n s1 c1 x y)).
  { intros s1 c1 x y [B1 [Hch1 O1]] X1 Ox Oy Hn.
    apply IH; auto; [apply (ext_ref_ok _ _ _ X1 Ox) | apply (ext_ref_ok _ _ _ X1 Oy)|].
    rewrite (ext_nlevels _ _ X1), (ext_rlevel _ _ _ X1 Ox), (ext_rlevel _ _ _ X1 Oy). exact Hn. }
  assert (I0 : ZInv s c) by (split; [exact B | split; assumption]).
  destruct (lcmp (vlevel vf) (vlevel vg)).
  - destruct Hl as (fhi & flo & ghi & glo & L & -> & -> & -> & HL & Rf & Rg & Ofh & Ofl & Ogh & Ogl & L1 & L2 & L3 & L4).
    apply (gjoin2_safe C ZInv extends extends_trans ref ref ref Qref Qref).
    + apply (Rec s c fhi ghi I0 (extends_refl s) Ofh Ogh). lia.
    + intros s1 c1 I1 X1. apply (Rec s1 c1 flo glo I1 X1 Ofl Ogl). lia.
    + intros s2 c2 hi lo I2 X2. apply zfin_c_fs. exact I2.
  - destruct Hl as (fhi & flo & L & -> & -> & HL & Rf & Lg & Ofh & Ofl & L1 & L2).
    apply (gbind_safe C ZInv extends extends_trans ref ref Qref).
    + apply (Rec s c flo g' I0 (extends_refl s) Ofl Og'). lia.
    + intros s1 c1 x I1 X1 _. apply zfin_c_fs. exact I1.
  - destruct Hl as (ghi & glo & L & -> & -> & HL & Rg & Lf & Ogh & Ogl & L1 & L2).
    apply (gbind_safe C ZInv extends extends_trans ref ref Qref).
    + apply (Rec s c f' glo I0 (extends_refl s) Of' Ogl). lia.
    + intros s1 c1 x I1 X1 _. apply zfin_c_fs. exact I1.
Qed.


(** ** [zapply_ite_c] *)

(** the shape of an operand that sits at a real level *)
Lemma ztop_struct : forall s r, ZbddOK s -> ref_ok s r -> rlevel s r < nlevels s ->
  exists nd hi lo, zget s r = Some (ZI nd) /\ zkids (ZI nd) = Some (hi, lo) /\
    ref_ok s hi /\ ref_ok s lo /\ rlevel s r < rlevel s hi /\ rlevel s r < rlevel s lo.
Proof.
  intros s r B O Hl. destruct (rlevel_lt_node s r O Hl) as (id & nd & -> & En).
  destruct (znode_struct s id nd B En) as (Sf & Lf & Rf & hi & lo & Ec & Oh & Ol & LA & LB).
  exists nd, (eref hi), (eref lo).
  split; [simpl; rewrite En; reflexivity|]. split; [simpl; rewrite Ec; reflexivity|].
  rewrite Rf. auto.
Qed.

Lemma zite_rec_c_fs : forall n p (ITE : snap -> C -> ref -> ref -> ref -> zres_c C)
    (APP : snap -> C -> zop -> ref -> ref -> zres_c C),
  (forall s c f g h, ZbddOK s -> ZChainOK s -> ZCacheOKB s c -> ref_ok s f -> ref_ok s g -> ref_ok s h ->
     nlevels s - Nat.min (rlevel s f) (Nat.min (rlevel s g) (rlevel s h)) < n -> RS s (ITE s c f g h)) ->
  (forall s c o f g, ZbddOK s -> ZChainOK s -> ZCacheOKB s c -> ref_ok s f -> ref_ok s g ->
     nlevels s - Nat.min (rlevel s f) (rlevel s g) < S n -> RS s (APP s c o f g)) ->
  forall s c f g h vf vg vh,
    ZbddOK s -> ZChainOK s -> ZCacheOKB s c -> ref_ok s f -> ref_ok s g -> ref_ok s h ->
    zget s f = Some vf -> zget s g = Some vg -> zget s h = Some vh ->
    g <> h -> is_empty_b s g = false -> is_empty_b s h = false ->
    nlevels s - Nat.min (rlevel s f) (Nat.min (rlevel s g) (rlevel s h)) < S n ->
    FS s (zite_rec_c C cap p ITE APP s c f g h vf vg vh).
Proof.
  intros n p ITE APP HI HA s c f g h vf vg vh B Hch O Of Og Oh Evf Evg Evh Hgh Eg Eh Hfuel.
  pose proof (zo_wf s B) as H.
  pose proof (rlevel_le s H f) as LeF. pose proof (rlevel_le s H g) as LeG. pose proof (rlevel_le s H h) as LeH.
  assert (I0 : ZInv s c) by (split; [exact B | split; assumption]).
  assert (Fin : forall lv s2 c2 (hi lo : ref), ZInv s2 c2 -> extends s s2 -> FS s2 (zfin_c C cap s2 c2 lv hi lo))
    by (intros; apply zfin_c_fs; assumption).
  (* [g] or [h] is an inner node: two terminals that are not Empty are both Base *)
  assert (HGH : rlevel s g < nlevels s \/ rlevel s h < nlevels s).
  { destruct g as [tg|idg];
      [|left; destruct Og as [nd En]; rewrite (rlevel_node s idg nd En); apply (wf_level s H idg nd En)].
    destruct h as [th|idh];
      [|right; destruct Oh as [nd En]; rewrite (rlevel_node s idh nd En); apply (wf_level s H idh nd En)].
    exfalso. apply Hgh. f_equal.
    destruct (zterm_cases s tg B Og) as [Etg|Etg];
      [unfold is_empty_b, is_term_with in Eg; rewrite Etg in Eg; discriminate|].
    destruct (zterm_cases s th B Oh) as [Eth|Eth];
      [unfold is_empty_b, is_term_with in Eh; rewrite Eth in Eh; discriminate|].
    apply (term_val_inj s tg th 1%N H Etg Eth). }
  (* the level comparisons of the code as comparisons of [rlevel]s (terminals at [N]) *)
  unfold zite_rec_c. cbv zeta. set (N := nlevels s) in *.
  destruct (vlevel_rlevel s f vf H Evf) as [VF OF]. destruct (vlevel_rlevel s g vg H Evg) as [VG OG].
  destruct (vlevel_rlevel s h vh H Evh) as [VH OH]. fold N in VF, VG, VH, OF, OG, OH.
  destruct (lmin_olev N (vlevel vg) (vlevel vh) OG OH) as [VGH OGH].
  destruct (lmin_olev N (vlevel vf) _ OF OGH) as [VL OL].
  rewrite VGH, VF, VG, VH in VL.
  rewrite (lcmp_olev N (vlevel vf) _ OF OGH), VF, VGH, VG, VH.
  rewrite (lcmp_olev N (vlevel vg) (vlevel vh) OG OH), VG, VH.
  rewrite (lcmp_olev N (vlevel vh) (vlevel vf) OH OF), VH, VF.
  rewrite (lcmp_olev N (vlevel vg) (vlevel vf) OG OF), VG, VF.
  set (F := rlevel s f) in *. set (G := rlevel s g) in *. set (Hh := rlevel s h) in *.
  set (Lv := Nat.min F (Nat.min G Hh)) in *.
  assert (HLv : Lv < N) by (unfold Lv; lia).
  rewrite (olev_some N _ ltac:(rewrite VL; exact HLv)), VL.
  clear VF VG VH VGH VL OF OG OH OGH OL HGH Hgh Eg Eh.
  assert (Rec : forall s1 c1 x y z, ZInv s1 c1 -> extends s s1 -> ref_ok s x -> ref_ok s y -> ref_ok s z ->
            Lv < rlevel s x -> Lv < rlevel s y -> Lv < rlevel s z -> RS s1 (ITE s1 c1 x y z)).
  { intros s1 c1 x y z [B1 [Hch1 O1]] X1 Ox Oy Oz Lx Ly Lz.
    apply HI; auto; [apply (ext_ref_ok _ _ _ X1 Ox) | apply (ext_ref_ok _ _ _ X1 Oy) | apply (ext_ref_ok _ _ _ X1 Oz)|].
    rewrite (ext_nlevels _ _ X1), (ext_rlevel _ _ _ X1 Ox), (ext_rlevel _ _ _ X1 Oy), (ext_rlevel _ _ _ X1 Oz).
    pose proof (rlevel_le s H x) as Nx. fold N in Nx |- *. lia. }
  assert (App : forall o x y, ref_ok s x -> ref_ok s y -> Lv < rlevel s x -> Lv < rlevel s y ->
            RS s (APP s c o x y)).
  { intros o x y Ox Oy Lx Ly. apply HA; auto. fold N. lia. }
  assert (Top : forall r v, ref_ok s r -> zget s r = Some v -> rlevel s r = Lv ->
            exists hi lo, zkids v = Some (hi, lo) /\ ref_ok s hi /\ ref_ok s lo /\
              Lv < rlevel s hi /\ Lv < rlevel s lo).
  { intros r v Or Ev EL.
    destruct (ztop_struct s r B Or ltac:(rewrite EL; exact HLv)) as (nd & hi & lo & Zr & Kr & Ohi & Olo & LA & LB).
    rewrite Ev in Zr. inversion Zr; subst v. rewrite EL in LA, LB. exists hi, lo. auto. }
  clear HI HA Hfuel HLv.
  destruct (Nat.compare_spec F (Nat.min G Hh)) as [HFc|HFc|HFc].
  - (* f at the top level, together with g or h or both *)
    destruct (Top f vf Of Evf ltac:(unfold Lv; lia)) as (fhi & flo & -> & Ofh & Ofl & LA & LB).
    destruct (Nat.compare_spec Hh F) as [HHc|HHc|HHc]; [| lia |].
    + destruct (Top h vh Oh Evh ltac:(unfold Lv; lia)) as (hhi & hlo & -> & Ohh & Ohl & LA'' & LB'').
      destruct (Nat.compare_spec G F) as [HGc|HGc|HGc]; [| lia |].
      * destruct (Top g vg Og Evg ltac:(unfold Lv; lia)) as (ghi & glo & -> & Ogh & Ogl & LA' & LB').
        apply (gjoin2_safe C ZInv extends extends_trans ref ref ref Qref Qref).
        -- apply (Rec s c fhi ghi hhi I0 (extends_refl s)); assumption.
        -- intros s1 c1 I1 X1. apply (Rec s1 c1 flo glo hlo I1 X1); assumption.
        -- intros s2 c2 hi lo I2 X2. apply Fin; assumption.
      * apply (gjoin2_safe C ZInv extends extends_trans ref ref ref Qref Qref).
        -- apply App; assumption.
        -- intros s1 c1 I1 X1. apply (Rec s1 c1 flo g hlo I1 X1); try assumption. unfold Lv. fold G. lia.
        -- intros s2 c2 hi lo I2 X2. apply Fin; assumption.
    + destruct (Top g vg Og Evg ltac:(unfold Lv; lia)) as (ghi & glo & -> & Ogh & Ogl & LA' & LB').
      apply (gjoin2_safe C ZInv extends extends_trans ref ref ref Qref Qref).
      * apply App; assumption.
      * intros s1 c1 I1 X1. apply (Rec s1 c1 flo glo h I1 X1); try assumption. unfold Lv. fold Hh. lia.
      * intros s2 c2 hi lo I2 X2. apply Fin; assumption.
  - (* f alone at the top level *)
    destruct (Top f vf Of Evf ltac:(unfold Lv; lia)) as (fhi & flo & -> & Ofh & Ofl & LA & LB).
    apply (res_fail_safe C ZInv extends ref Qref).
    apply (Rec s c flo g h I0 (extends_refl s)); try assumption; unfold Lv; [fold G | fold Hh]; lia.
  - (* g or h (or both) above f *)
    destruct (Nat.compare_spec G Hh) as [HGc|HGc|HGc].
    + destruct (Top h vh Oh Evh ltac:(unfold Lv; lia)) as (hhi & hlo & -> & Ohh & Ohl & LA'' & LB'').
      destruct (Top g vg Og Evg ltac:(unfold Lv; lia)) as (ghi & glo & -> & Ogh & Ogl & LA' & LB').
      apply (gbind_safe C ZInv extends extends_trans ref ref Qref).
      * apply (Rec s c f glo hlo I0 (extends_refl s)); try assumption. unfold Lv. fold F. lia.
      * intros s1 c1 x I1 X1 _. apply Fin; assumption.
    + destruct (Top g vg Og Evg ltac:(unfold Lv; lia)) as (ghi & glo & -> & Ogh & Ogl & LA' & LB').
      apply (res_fail_safe C ZInv extends ref Qref).
      apply (Rec s c f glo h I0 (extends_refl s)); try assumption; unfold Lv; [fold F | fold Hh]; lia.
    + destruct (Top h vh Oh Evh ltac:(unfold Lv; lia)) as (hhi & hlo & -> & Ohh & Ohl & LA'' & LB'').
      apply (gbind_safe C ZInv extends extends_trans ref ref Qref).
      * apply (Rec s c f g hlo I0 (extends_refl s)); try assumption; unfold Lv; [fold F | fold G]; lia.
      * intros s1 c1 x I1 X1 _. apply Fin; assumption.
Qed.

Theorem zapply_ite_c_safe : forall fuel s c f g h,
  ZbddOK s -> ZChainOK s -> ZCacheOKB s c -> ref_ok s f -> ref_ok s g -> ref_ok s h ->
  nlevels s - Nat.min (rlevel s f) (Nat.min (rlevel s g) (rlevel s h)) < fuel ->
  RS s (zapply_ite_c gt C cget cadd cap par fuel s c f g h).
Proof.
  induction fuel as [|n IH]; intros s c f g h B Hch O Of Og Oh Hfuel; [lia|].
  destruct (zden_exists s f B Of) as [P DF]. destruct (zden_exists s g B Og) as [Q DG].
  destruct (zden_exists s h B Oh) as [R DH].
  apply (safe_by_sim C no_m2 cap 1 ZInv extends ref Qref s _ _
           (zapply_ite_sim gt C cget cadd cap par (S n) s c f g h)
           (zresultB_ex s _ (pite P Q R) B Hch
              (zapply_ite_ok gt C cget cadd Hlossy (S n) s c f g h P Q R B Hch O DF DG DH Hfuel))).
  clear DF DG DH P Q R.
  rewrite zapply_ite_c_S.
  pose proof (zo_wf s B) as H.
  pose proof (rlevel_le s H f) as LeF. pose proof (rlevel_le s H g) as LeG. pose proof (rlevel_le s H h) as LeH.
  assert (App : forall o x y, ref_ok s x -> ref_ok s y ->
            nlevels s - Nat.min (rlevel s x) (rlevel s y) < S n ->
            FS s (zapply_c gt C cget cadd cap par (S n) s c o x y))
    by (intros; apply (res_fail_safe C ZInv extends ref Qref); apply zapply_c_safe; auto).
  destruct (ref_eqb g h) eqn:E1; [exact I|].
  destruct (ref_eqb f g) eqn:E2; [apply App; auto; lia|].
  destruct (ref_eqb f h) eqn:E3; [apply App; auto; lia|].
  apply ref_eqb_false in E1.
  destruct (zget_total s f Of) as [vf Evf]. rewrite Evf.
  destruct (is_empty_b s f) eqn:Ef; [exact I|].
  destruct (zget_total s g Og) as [vg Evg]. rewrite Evg.
  destruct (is_empty_b s g) eqn:Eg; [apply App; auto; lia|].
  destruct (zget_total s h Oh) as [vh Evh]. rewrite Evh.
  destruct (is_empty_b s h) eqn:Eh; [apply App; auto; lia|].
  rewrite ztaut_opt_olev.
  destruct (ztaut_total s (olev (nlevels s) (lmin (vlevel vf) (lmin (vlevel vg) (vlevel vh)))) Hch) as [ta Eta].
  rewrite Eta.
  destruct (ref_eqb f ta); [exact I|].
  destruct (ref_eqb g ta); [apply App; auto; lia|].
  destruct (cget c zcode_ite [f; g; h] []); [exact I|].
  apply gbind_ok_fs.
  apply (zite_rec_c_fs n (par n)); auto.
  intros s0 c0 o x y B0 Hch0 O0 Ox Oy Hn. apply zapply_c_safe; auto.
Qed.

(** ** [zapply_op_c]: the eight operators *)

Lemma then_not_c_safe : forall fuel s r, ZbddOK s -> nlevels s < fuel -> RS s r ->
  RS s (gbind r (fun s1 c1 x => zapply_not_c gt C cget cadd cap par fuel s1 c1 x)).
Proof.
  intros fuel s r B Hfuel R1. destruct r as [s1 c1 x|s1 c1|]; simpl in *; [| exact R1 | exact R1].
  destruct R1 as [[B1 [Hch1 O1]] [X1 Q1]].
  pose proof (zapply_not_c_safe fuel s1 c1 x B1 Hch1 O1 Q1 ltac:(rewrite (ext_nlevels _ _ X1); exact Hfuel)) as R2.
  destruct (zapply_not_c gt C cget cadd cap par fuel s1 c1 x) as [s2 c2 y|s2 c2|]; simpl in *; [| |exact R2].
  - destruct R2 as [I2 [X2 Q2]]. split; [exact I2|]. split; [apply (extends_trans _ _ _ X1 X2) | exact Q2].
  - destruct R2 as [I2 X2]. split; [exact I2 | apply (extends_trans _ _ _ X1 X2)].
Qed.

Theorem zapply_op_c_safe : forall op fuel s c f g,
  ZbddOK s -> ZChainOK s -> ZCacheOKB s c -> ref_ok s f -> ref_ok s g -> nlevels s < fuel ->
  RS s (zapply_op_c gt C cget cadd cap par fuel s c op f g).
Proof.
  intros op fuel s c f g B Hch O Of Og Hfuel. pose proof (zo_wf s B) as H.
  pose proof (rlevel_le s H f) as LeF. pose proof (rlevel_le s H g) as LeG.
  destruct op; unfold zapply_op_c.
  - apply zapply_c_safe; auto; lia.
  - apply zapply_c_safe; auto; lia.
  - apply zsymm_c_safe; auto; lia.
  - apply then_not_c_safe; auto. apply zsymm_c_safe; auto; lia.
  - apply then_not_c_safe; auto. apply zapply_c_safe; auto; lia.
  - apply then_not_c_safe; auto. apply zapply_c_safe; auto; lia.
  - destruct (ztaut_total s 0 Hch) as [t Et]. rewrite Et.
    pose proof (ztaut_den s 0 t B Et) as Dt.
    apply zapply_ite_c_safe; auto; [apply (zden_ok _ _ _ Dt) | lia].
  - apply zapply_c_safe; auto; lia.
Qed.

End Safe.
