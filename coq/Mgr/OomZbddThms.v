(** * Out-of-memory behaviour of the ZBDD apply algorithms (Mgr/OomZbdd.v), part 3

    The C14 statements for ZBDDs: [zoom_never_wrong_*], [zoom_safe_*],
    [zoom_no_panic_*], [zoom_exact_*], [zoom_outcome_recursor_indep_*],
    [zoom_retry_*], [zoom_monotone_*] for the set operations ([zapply_c]: union,
    intersection, difference), negation ([zapply_not_c]), the eight Boolean
    operators ([zapply_op_c]), if-then-else ([zapply_ite_c]) and
    [singleton_edge]; [intact_z]: what "extension" means for the owner of a
    handle (zero-suppressed semantics: [semz]). *)

From Coq Require Import List NArith PArith Bool Arith Lia FMapPositive.
From OxiVerif Require Import DD.Table DD.TableProofs DD.Canon DD.Sem DD.Build DD.BuildProofs DD.PickInsert
  DD.Apply DD.FamSpec DD.FamSpecProofs DD.ZbddOps DD.ZbddOpsProofs DD.ZbddSoundProofs
  DD.ZbddBool DD.ZbddBoolProofs DD.ZbddXorProofs DD.ZbddIteProofs DD.ZbddEvalProofs
  Mgr.Oom Mgr.OomProofs.
From OxiVerif Require Import Mgr.OomGen Mgr.OomGenProofs Mgr.OomBcddProofs Mgr.OomZbdd Mgr.OomZbddProofs
  Mgr.OomZbddSafe Mgr.OomFamily.
Import ListNotations.

(** ** What an extension preserves (zero-suppressed semantics) *)

Record intact_z (s s' : snap) : Prop := mkIntactZ {
  (* handles, order, stored nodes unchanged; added nodes unreachable; live part unchanged *)
  iz_base : intact0 s s';
  (* same terminals *)
  iz_terms : s_terms s' = s_terms s;
  (* every valid reference stays valid and means the same family / function *)
  iz_sem : forall r, ref_ok s r ->
             ref_ok s' r /\ forall k lvl c0, semz s' k lvl r c0 = semz s k lvl r c0;
  (* every handle has the same value under every assignment *)
  iz_handle_sem : forall h, In h (s_handles s) ->
             forall c0, sem_edge s' (snd h) c0 = sem_edge s (snd h) c0
}.

Theorem extends_intact_z : forall s s', ZbddOK s -> extends s s' -> intact_z s s'.
Proof.
  intros s s' B X. pose proof (zo_wf s B) as H. constructor.
  - apply (next_intact0 s s' H (next_of_extends s s' X)).
  - apply (ext_terms _ _ X).
  - intros r Hr. split; [apply (ext_ref_ok _ _ _ X Hr)|].
    intros k lvl c0. apply (semz_extends s s' H X k lvl r c0 Hr).
  - intros h Hh c0. unfold sem_edge. rewrite (ext_kind _ _ X), (zo_kind s B), (ext_nlevels _ _ X).
    f_equal. apply (semz_extends s s' H X). apply (wf_handles s H h Hh).
Qed.

Theorem intact_z_elim : forall s s', intact_z s s' ->
  s_handles s' = s_handles s /\
  s_v2l s' = s_v2l s /\ s_l2v s' = s_l2v s /\ s_terms s' = s_terms s /\
  (forall id nd, find_node s id = Some nd -> find_node s' id = Some nd) /\
  (forall r, ref_ok s r -> ref_ok s' r /\ forall k lvl c0, semz s' k lvl r c0 = semz s k lvl r c0) /\
  (forall h, In h (s_handles s) -> forall c0, sem_edge s' (snd h) c0 = sem_edge s (snd h) c0) /\
  (forall id, find_node s id = None -> ~ reachable s' (handle_refs s') (RN id)) /\
  (forall r, reachable s' (handle_refs s') r <-> reachable s (handle_refs s) r).
Proof.
  intros s s' [[A [B1 B2] C0 F G] T D E0]. repeat (split; [assumption|]). assumption.
Qed.

Definition ZFUEL (s : snap) : nat := S (nlevels s).

Section Top.
Variable gt : ref -> ref -> bool.
Variable C : Type.
Variable cget : C -> N -> list ref -> list nat -> option ref.
Variable cadd : C -> N -> list ref -> list nat -> ref -> C.
Hypothesis Hlossy : zlossy C cget cadd.

Notation ZCacheOKB := (ZCacheOKB C cget).
Notation ZINV := (ZInv C cget).
Notation SIM cap := (sim C no_m2 cap 1).
Notation RS := (res_safe (ZInv C cget) extends Qref).

(** the state after a failure *)
Definition zfailed_ok (cap : nat) (s s' : snap) (c' : C) : Prop :=
  ZbddOK s' /\ ZChainOK s' /\ ZCacheOKB s' c' /\ extends s s' /\ intact_z s s' /\
  node_count s <= node_count s' /\ cap <= node_count s'.

Lemma zfailed_of : forall cap s s' c', ZbddOK s ->
  failed1 C ZINV extends cap s s' c' -> zfailed_ok cap s s' c'.
Proof.
  intros cap s s' c' B [[B' [Hch' O']] [X G]].
  split; [exact B'|]. split; [exact Hch'|]. split; [exact O'|]. split; [exact X|].
  split; [apply (extends_intact_z s s' B X) | exact G].
Qed.

(** the outcome of a bounded run, given the table [su] of the unbounded run *)
Definition zexact (cap : nat) (s : snap) (rb : gres C ref) (su : snap) (cu : C) (ru : ref) : Prop :=
  (node_count su <= Nat.max cap (node_count s) -> rb = GOk su cu ru) /\
  (Nat.max cap (node_count s) < node_count su -> exists s' c', rb = GOom s' c' /\ zfailed_ok cap s s' c').

(** ** The family (Mgr/OomFamily.v): one call type for the four entry points;
    the fuel is part of the call *)

Inductive zcall : Type :=
| ZSet (op : zop) (fuel : nat) (f g : ref)
| ZNot (fuel : nat) (f : ref)
| ZOp (op : bop) (fuel : nat) (f g : ref)
| ZIte (fuel : nat) (f g h : ref).

Definition zrun_c (cap : nat) (par_at : nat -> bool) (s : snap) (c : C) (k : zcall) : gres C ref :=
  match k with
  | ZSet op fuel f g => zapply_c gt C cget cadd cap par_at fuel s c op f g
  | ZNot fuel f => zapply_not_c gt C cget cadd cap par_at fuel s c f
  | ZOp op fuel f g => zapply_op_c gt C cget cadd cap par_at fuel s c op f g
  | ZIte fuel f g h => zapply_ite_c gt C cget cadd cap par_at fuel s c f g h
  end.

Definition zrun_u (s : snap) (c : C) (k : zcall) : option (snap * C * ref) :=
  match k with
  | ZSet op fuel f g => zapply gt C cget cadd fuel s c op f g
  | ZNot fuel f => zapply_not gt C cget cadd fuel s c f
  | ZOp op fuel f g => zapply_op gt C cget cadd fuel s c op f g
  | ZIte fuel f g h => zapply_ite gt C cget cadd fuel s c f g h
  end.

Definition zpre (s : snap) (c : C) (k : zcall) : Prop :=
  ZbddOK s /\ ZChainOK s /\ ZCacheOKB s c /\
  match k with
  | ZSet _ fuel f g | ZOp _ fuel f g => ref_ok s f /\ ref_ok s g /\ ZFUEL s <= fuel
  | ZNot fuel f => ref_ok s f /\ ZFUEL s <= fuel
  | ZIte fuel f g h => ref_ok s f /\ ref_ok s g /\ ref_ok s h /\ ZFUEL s <= fuel
  end.

(** C09 for the set operations, C02 for the Boolean ones *)
Definition zspec (s : snap) (c : C) (k : zcall) (su : snap) (cu : C) (ru : ref) : Prop :=
  match k with
  | ZSet op _ f g =>
    exists F G R, fam_of s f = Some F /\ fam_of s g = Some G /\ fam_of su ru = Some R /\ feq R (f_bin op F G)
  | ZNot _ f =>
    forall c0, choice_ok s c0 ->
      exists bf, zview_of s f c0 = Some bf /\ zview_of su ru c0 = Some (negb bf)
  | ZOp op _ f g =>
    forall c0, choice_ok s c0 ->
      exists bf bg, zview_of s f c0 = Some bf /\ zview_of s g c0 = Some bg /\
        zview_of su ru c0 = Some (eval_bop op bf bg)
  | ZIte _ f g h =>
    forall c0, choice_ok s c0 ->
      exists bf bg bh, zview_of s f c0 = Some bf /\ zview_of s g c0 = Some bg /\ zview_of s h c0 = Some bh /\
        zview_of su ru c0 = Some (if bf then bg else bh)
  end.

Lemma zfam_sim : forall cap par s c k, SIM cap s (zrun_c cap par s c k) (zrun_u s c k).
Proof.
  intros cap par s c k. destruct k; [apply zapply_sim | apply zapply_not_sim | apply zapply_op_sim | apply zapply_ite_sim].
Qed.

Lemma zfam_rs : forall cap par s c k, zpre s c k -> RS s (zrun_c cap par s c k).
Proof.
  intros cap par s c k [B [Hch [O Hk]]]. unfold ZFUEL in Hk. destruct k; cbn [zrun_c].
  - destruct Hk as [Of [Og Hfuel]]. apply (zapply_c_safe gt C cget cadd Hlossy); auto. lia.
  - destruct Hk as [Of Hfuel]. apply (zapply_not_c_safe gt C cget cadd Hlossy); auto.
  - destruct Hk as [Of [Og Hfuel]]. apply (zapply_op_c_safe gt C cget cadd Hlossy); auto.
  - destruct Hk as [Of [Og [Oh Hfuel]]]. apply (zapply_ite_c_safe gt C cget cadd Hlossy); auto. lia.
Qed.

Lemma zfam_u_ok : forall s c k, zpre s c k ->
  exists su cu ru, zrun_u s c k = Some (su, cu, ru) /\ zspec s c k su cu ru.
Proof.
  intros s c k [B [Hch [O Hk]]]. destruct k; cbn [zrun_u zspec].
  - destruct Hk as [Of [Og Hfuel]].
    destruct (zapply_sound gt C cget cadd Hlossy op fuel s c f g B (zcacheokb_ok C cget s c O) Of Og Hfuel)
      as (su & cu & ru & F & G & R & Eu & _ & _ & _ & _ & EF & EG & ER & Hq).
    exists su, cu, ru. split; [exact Eu | exists F, G, R; auto].
  - destruct Hk as [Of Hfuel].
    destruct (zapply_not_sound gt C cget cadd Hlossy fuel s c f B Hch O Of Hfuel) as (su & cu & ru & Eu & _ & V).
    exists su, cu, ru. auto.
  - destruct Hk as [Of [Og Hfuel]].
    destruct (zapply_op_sound gt C cget cadd Hlossy op fuel s c f g B Hch O Of Og Hfuel)
      as (su & cu & ru & Eu & _ & V).
    exists su, cu, ru. auto.
  - destruct Hk as [Of [Og [Oh Hfuel]]].
    destruct (zapply_ite_sound gt C cget cadd Hlossy fuel s c f g h B Hch O Of Og Oh Hfuel)
      as (su & cu & ru & Eu & _ & V).
    exists su, cu, ru. auto.
Qed.

Lemma zfam_failed : forall cap s c k s' c', zpre s c k ->
  failed1 C ZINV extends cap s s' c' -> zfailed_ok cap s s' c'.
Proof. intros cap s c k s' c' [B _]. apply (zfailed_of cap s s' c' B). Qed.

(** a result, in the form of the statements below *)
Lemma zfam_sem : forall cap par s c k s' c' r, zpre s c k ->
  zrun_c cap par s c k = GOk s' c' r ->
  ZbddOK s' /\ ZChainOK s' /\ ZCacheOKB s' c' /\ intact_z s s' /\ ref_ok s' r /\ zspec s c k s' c' r.
Proof.
  intros cap par s c k s' c' r H E.
  destruct (fam_never_wrong_sem zfam_sim zfam_rs zfam_u_ok cap par s c k s' c' r H E)
    as [[B' [Hch' O']] [X [R V]]].
  destruct H as [B _]. split; [exact B'|]. split; [exact Hch'|]. split; [exact O'|].
  split; [apply (extends_intact_z s s' B X) | auto].
Qed.

(** *** never a wrong edge: a result is literally the result of the unbounded run *)

Theorem zoom_never_wrong_set : forall cap par op fuel s c f g s' c' r,
  zapply_c gt C cget cadd cap par fuel s c op f g = GOk s' c' r ->
  zapply gt C cget cadd fuel s c op f g = Some (s', c', r).
Proof.
  intros cap par op fuel s c f g. exact (fam_never_wrong zfam_sim cap par s c (ZSet op fuel f g)).
Qed.

Theorem zoom_never_wrong_not : forall cap par fuel s c f s' c' r,
  zapply_not_c gt C cget cadd cap par fuel s c f = GOk s' c' r ->
  zapply_not gt C cget cadd fuel s c f = Some (s', c', r).
Proof.
  intros cap par fuel s c f. exact (fam_never_wrong zfam_sim cap par s c (ZNot fuel f)).
Qed.

Theorem zoom_never_wrong_op : forall cap par op fuel s c f g s' c' r,
  zapply_op_c gt C cget cadd cap par fuel s c op f g = GOk s' c' r ->
  zapply_op gt C cget cadd fuel s c op f g = Some (s', c', r).
Proof.
  intros cap par op fuel s c f g. exact (fam_never_wrong zfam_sim cap par s c (ZOp op fuel f g)).
Qed.

Theorem zoom_never_wrong_ite : forall cap par fuel s c f g h s' c' r,
  zapply_ite_c gt C cget cadd cap par fuel s c f g h = GOk s' c' r ->
  zapply_ite gt C cget cadd fuel s c f g h = Some (s', c', r).
Proof.
  intros cap par fuel s c f g h. exact (fam_never_wrong zfam_sim cap par s c (ZIte fuel f g h)).
Qed.

(** ... hence (C09 / C02) the set operation resp. the pointwise connective of
    the operands, in a table in which everything that existed before is intact *)

Theorem zoom_never_wrong_set_sem : forall cap par op fuel s c f g s' c' r,
  ZbddOK s -> ZChainOK s -> ZCacheOKB s c -> ref_ok s f -> ref_ok s g -> ZFUEL s <= fuel ->
  zapply_c gt C cget cadd cap par fuel s c op f g = GOk s' c' r ->
  ZbddOK s' /\ ZChainOK s' /\ ZCacheOKB s' c' /\ intact_z s s' /\ ref_ok s' r /\
  exists F G R, fam_of s f = Some F /\ fam_of s g = Some G /\ fam_of s' r = Some R /\ feq R (f_bin op F G).
Proof.
  intros cap par op fuel s c f g s' c' r; intros.
  apply (zfam_sem cap par s c (ZSet op fuel f g)); [unfold zpre; auto 8 | assumption].
Qed.

Theorem zoom_never_wrong_not_sem : forall cap par fuel s c f s' c' r,
  ZbddOK s -> ZChainOK s -> ZCacheOKB s c -> ref_ok s f -> ZFUEL s <= fuel ->
  zapply_not_c gt C cget cadd cap par fuel s c f = GOk s' c' r ->
  ZbddOK s' /\ ZChainOK s' /\ ZCacheOKB s' c' /\ intact_z s s' /\ ref_ok s' r /\
  forall c0, choice_ok s c0 ->
    exists bf, zview_of s f c0 = Some bf /\ zview_of s' r c0 = Some (negb bf).
Proof.
  intros cap par fuel s c f s' c' r; intros.
  apply (zfam_sem cap par s c (ZNot fuel f)); [unfold zpre; auto 8 | assumption].
Qed.

Theorem zoom_never_wrong_op_sem : forall cap par op fuel s c f g s' c' r,
  ZbddOK s -> ZChainOK s -> ZCacheOKB s c -> ref_ok s f -> ref_ok s g -> ZFUEL s <= fuel ->
  zapply_op_c gt C cget cadd cap par fuel s c op f g = GOk s' c' r ->
  ZbddOK s' /\ ZChainOK s' /\ ZCacheOKB s' c' /\ intact_z s s' /\ ref_ok s' r /\
  forall c0, choice_ok s c0 ->
    exists bf bg, zview_of s f c0 = Some bf /\ zview_of s g c0 = Some bg /\
      zview_of s' r c0 = Some (eval_bop op bf bg).
Proof.
  intros cap par op fuel s c f g s' c' r; intros.
  apply (zfam_sem cap par s c (ZOp op fuel f g)); [unfold zpre; auto 8 | assumption].
Qed.

Theorem zoom_never_wrong_ite_sem : forall cap par fuel s c f g h s' c' r,
  ZbddOK s -> ZChainOK s -> ZCacheOKB s c -> ref_ok s f -> ref_ok s g -> ref_ok s h -> ZFUEL s <= fuel ->
  zapply_ite_c gt C cget cadd cap par fuel s c f g h = GOk s' c' r ->
  ZbddOK s' /\ ZChainOK s' /\ ZCacheOKB s' c' /\ intact_z s s' /\ ref_ok s' r /\
  forall c0, choice_ok s c0 ->
    exists bf bg bh, zview_of s f c0 = Some bf /\ zview_of s g c0 = Some bg /\ zview_of s h c0 = Some bh /\
      zview_of s' r c0 = Some (if bf then bg else bh).
Proof.
  intros cap par fuel s c f g h s' c' r; intros.
  apply (zfam_sem cap par s c (ZIte fuel f g h)); [unfold zpre; auto 8 | assumption].
Qed.

(** *** the state after a failure *)

Theorem zoom_safe_set : forall cap par op fuel s c f g s' c',
  ZbddOK s -> ZChainOK s -> ZCacheOKB s c -> ref_ok s f -> ref_ok s g -> ZFUEL s <= fuel ->
  zapply_c gt C cget cadd cap par fuel s c op f g = GOom s' c' -> zfailed_ok cap s s' c'.
Proof.
  intros cap par op fuel s c f g s' c'; intros.
  apply (fam_safe zfam_sim zfam_rs zfam_failed cap par s c (ZSet op fuel f g)); [unfold zpre; auto 8 | assumption].
Qed.

Theorem zoom_safe_not : forall cap par fuel s c f s' c',
  ZbddOK s -> ZChainOK s -> ZCacheOKB s c -> ref_ok s f -> ZFUEL s <= fuel ->
  zapply_not_c gt C cget cadd cap par fuel s c f = GOom s' c' -> zfailed_ok cap s s' c'.
Proof.
  intros cap par fuel s c f s' c'; intros.
  apply (fam_safe zfam_sim zfam_rs zfam_failed cap par s c (ZNot fuel f)); [unfold zpre; auto 8 | assumption].
Qed.

Theorem zoom_safe_op : forall cap par op fuel s c f g s' c',
  ZbddOK s -> ZChainOK s -> ZCacheOKB s c -> ref_ok s f -> ref_ok s g -> ZFUEL s <= fuel ->
  zapply_op_c gt C cget cadd cap par fuel s c op f g = GOom s' c' -> zfailed_ok cap s s' c'.
Proof.
  intros cap par op fuel s c f g s' c'; intros.
  apply (fam_safe zfam_sim zfam_rs zfam_failed cap par s c (ZOp op fuel f g)); [unfold zpre; auto 8 | assumption].
Qed.

Theorem zoom_safe_ite : forall cap par fuel s c f g h s' c',
  ZbddOK s -> ZChainOK s -> ZCacheOKB s c -> ref_ok s f -> ref_ok s g -> ref_ok s h -> ZFUEL s <= fuel ->
  zapply_ite_c gt C cget cadd cap par fuel s c f g h = GOom s' c' -> zfailed_ok cap s s' c'.
Proof.
  intros cap par fuel s c f g h s' c'; intros.
  apply (fam_safe zfam_sim zfam_rs zfam_failed cap par s c (ZIte fuel f g h)); [unfold zpre; auto 8 | assumption].
Qed.

(** *** no panic, no divergence *)

Theorem zoom_no_panic_set : forall cap par op fuel s c f g,
  ZbddOK s -> ZChainOK s -> ZCacheOKB s c -> ref_ok s f -> ref_ok s g -> ZFUEL s <= fuel ->
  zapply_c gt C cget cadd cap par fuel s c op f g <> GStuck.
Proof.
  intros cap par op fuel s c f g; intros.
  apply (fam_no_panic zfam_rs cap par s c (ZSet op fuel f g)); unfold zpre; auto 8.
Qed.

Theorem zoom_no_panic_not : forall cap par fuel s c f,
  ZbddOK s -> ZChainOK s -> ZCacheOKB s c -> ref_ok s f -> ZFUEL s <= fuel ->
  zapply_not_c gt C cget cadd cap par fuel s c f <> GStuck.
Proof.
  intros cap par fuel s c f; intros.
  apply (fam_no_panic zfam_rs cap par s c (ZNot fuel f)); unfold zpre; auto 8.
Qed.

Theorem zoom_no_panic_op : forall cap par op fuel s c f g,
  ZbddOK s -> ZChainOK s -> ZCacheOKB s c -> ref_ok s f -> ref_ok s g -> ZFUEL s <= fuel ->
  zapply_op_c gt C cget cadd cap par fuel s c op f g <> GStuck.
Proof.
  intros cap par op fuel s c f g; intros.
  apply (fam_no_panic zfam_rs cap par s c (ZOp op fuel f g)); unfold zpre; auto 8.
Qed.

Theorem zoom_no_panic_ite : forall cap par fuel s c f g h,
  ZbddOK s -> ZChainOK s -> ZCacheOKB s c -> ref_ok s f -> ref_ok s g -> ref_ok s h -> ZFUEL s <= fuel ->
  zapply_ite_c gt C cget cadd cap par fuel s c f g h <> GStuck.
Proof.
  intros cap par fuel s c f g h; intros.
  apply (fam_no_panic zfam_rs cap par s c (ZIte fuel f g h)); unfold zpre; auto 8.
Qed.

(** *** retry: when the table of the unbounded run fits, the bounded run
    succeeds with exactly that result *)

Theorem zoom_retry_set : forall cap par op fuel s c f g su cu ru,
  zapply gt C cget cadd fuel s c op f g = Some (su, cu, ru) -> node_count su <= cap ->
  zapply_c gt C cget cadd cap par fuel s c op f g = GOk su cu ru.
Proof.
  intros cap par op fuel s c f g. exact (fam_retry zfam_sim cap par s c (ZSet op fuel f g)).
Qed.

Theorem zoom_retry_not : forall cap par fuel s c f su cu ru,
  zapply_not gt C cget cadd fuel s c f = Some (su, cu, ru) -> node_count su <= cap ->
  zapply_not_c gt C cget cadd cap par fuel s c f = GOk su cu ru.
Proof.
  intros cap par fuel s c f. exact (fam_retry zfam_sim cap par s c (ZNot fuel f)).
Qed.

Theorem zoom_retry_op : forall cap par op fuel s c f g su cu ru,
  zapply_op gt C cget cadd fuel s c op f g = Some (su, cu, ru) -> node_count su <= cap ->
  zapply_op_c gt C cget cadd cap par fuel s c op f g = GOk su cu ru.
Proof.
  intros cap par op fuel s c f g. exact (fam_retry zfam_sim cap par s c (ZOp op fuel f g)).
Qed.

Theorem zoom_retry_ite : forall cap par fuel s c f g h su cu ru,
  zapply_ite gt C cget cadd fuel s c f g h = Some (su, cu, ru) -> node_count su <= cap ->
  zapply_ite_c gt C cget cadd cap par fuel s c f g h = GOk su cu ru.
Proof.
  intros cap par fuel s c f g h. exact (fam_retry zfam_sim cap par s c (ZIte fuel f g h)).
Qed.

(** *** monotone in the capacity, independent of the recursor *)

Theorem zoom_monotone_set : forall cap cap' par par' op fuel s c f g s' c' r, cap <= cap' ->
  zapply_c gt C cget cadd cap par fuel s c op f g = GOk s' c' r ->
  zapply_c gt C cget cadd cap' par' fuel s c op f g = GOk s' c' r.
Proof.
  intros cap cap' par par' op fuel s c f g. exact (fam_monotone zfam_sim cap cap' par par' s c (ZSet op fuel f g)).
Qed.

Theorem zoom_monotone_not : forall cap cap' par par' fuel s c f s' c' r, cap <= cap' ->
  zapply_not_c gt C cget cadd cap par fuel s c f = GOk s' c' r ->
  zapply_not_c gt C cget cadd cap' par' fuel s c f = GOk s' c' r.
Proof.
  intros cap cap' par par' fuel s c f. exact (fam_monotone zfam_sim cap cap' par par' s c (ZNot fuel f)).
Qed.

Theorem zoom_monotone_op : forall cap cap' par par' op fuel s c f g s' c' r, cap <= cap' ->
  zapply_op_c gt C cget cadd cap par fuel s c op f g = GOk s' c' r ->
  zapply_op_c gt C cget cadd cap' par' fuel s c op f g = GOk s' c' r.
Proof.
  intros cap cap' par par' op fuel s c f g. exact (fam_monotone zfam_sim cap cap' par par' s c (ZOp op fuel f g)).
Qed.

Theorem zoom_monotone_ite : forall cap cap' par par' fuel s c f g h s' c' r, cap <= cap' ->
  zapply_ite_c gt C cget cadd cap par fuel s c f g h = GOk s' c' r ->
  zapply_ite_c gt C cget cadd cap' par' fuel s c f g h = GOk s' c' r.
Proof.
  intros cap cap' par par' fuel s c f g h. exact (fam_monotone zfam_sim cap cap' par par' s c (ZIte fuel f g h)).
Qed.

(** *** exactness: the operation fails if and only if it needs more nodes than
    the capacity allows; otherwise it returns the correct result *)

Theorem zoom_exact_set : forall cap par op fuel s c f g,
  ZbddOK s -> ZChainOK s -> ZCacheOKB s c -> ref_ok s f -> ref_ok s g -> ZFUEL s <= fuel ->
  exists su cu ru, zapply gt C cget cadd fuel s c op f g = Some (su, cu, ru) /\
    (exists F G R, fam_of s f = Some F /\ fam_of s g = Some G /\ fam_of su ru = Some R /\ feq R (f_bin op F G)) /\
    zexact cap s (zapply_c gt C cget cadd cap par fuel s c op f g) su cu ru.
Proof.
  intros cap par op fuel s c f g; intros.
  apply (fam_exact zfam_sim zfam_rs zfam_u_ok zfam_failed cap par s c (ZSet op fuel f g)); unfold zpre; auto 8.
Qed.

Theorem zoom_exact_not : forall cap par fuel s c f,
  ZbddOK s -> ZChainOK s -> ZCacheOKB s c -> ref_ok s f -> ZFUEL s <= fuel ->
  exists su cu ru, zapply_not gt C cget cadd fuel s c f = Some (su, cu, ru) /\
    (forall c0, choice_ok s c0 ->
       exists bf, zview_of s f c0 = Some bf /\ zview_of su ru c0 = Some (negb bf)) /\
    zexact cap s (zapply_not_c gt C cget cadd cap par fuel s c f) su cu ru.
Proof.
  intros cap par fuel s c f; intros.
  apply (fam_exact zfam_sim zfam_rs zfam_u_ok zfam_failed cap par s c (ZNot fuel f)); unfold zpre; auto 8.
Qed.

Theorem zoom_exact_op : forall cap par op fuel s c f g,
  ZbddOK s -> ZChainOK s -> ZCacheOKB s c -> ref_ok s f -> ref_ok s g -> ZFUEL s <= fuel ->
  exists su cu ru, zapply_op gt C cget cadd fuel s c op f g = Some (su, cu, ru) /\
    (forall c0, choice_ok s c0 ->
       exists bf bg, zview_of s f c0 = Some bf /\ zview_of s g c0 = Some bg /\
         zview_of su ru c0 = Some (eval_bop op bf bg)) /\
    zexact cap s (zapply_op_c gt C cget cadd cap par fuel s c op f g) su cu ru.
Proof.
  intros cap par op fuel s c f g; intros.
  apply (fam_exact zfam_sim zfam_rs zfam_u_ok zfam_failed cap par s c (ZOp op fuel f g)); unfold zpre; auto 8.
Qed.

Theorem zoom_exact_ite : forall cap par fuel s c f g h,
  ZbddOK s -> ZChainOK s -> ZCacheOKB s c -> ref_ok s f -> ref_ok s g -> ref_ok s h -> ZFUEL s <= fuel ->
  exists su cu ru, zapply_ite gt C cget cadd fuel s c f g h = Some (su, cu, ru) /\
    (forall c0, choice_ok s c0 ->
       exists bf bg bh, zview_of s f c0 = Some bf /\ zview_of s g c0 = Some bg /\ zview_of s h c0 = Some bh /\
         zview_of su ru c0 = Some (if bf then bg else bh)) /\
    zexact cap s (zapply_ite_c gt C cget cadd cap par fuel s c f g h) su cu ru.
Proof.
  intros cap par fuel s c f g h; intros.
  apply (fam_exact zfam_sim zfam_rs zfam_u_ok zfam_failed cap par s c (ZIte fuel f g h)); unfold zpre; auto 8.
Qed.

(** failing or not does not depend on the recursor *)

Theorem zoom_outcome_recursor_indep_set : forall cap par par' op fuel s c f g,
  ZbddOK s -> ZChainOK s -> ZCacheOKB s c -> ref_ok s f -> ref_ok s g -> ZFUEL s <= fuel ->
  gres_code (zapply_c gt C cget cadd cap par fuel s c op f g) =
  gres_code (zapply_c gt C cget cadd cap par' fuel s c op f g).
Proof.
  intros cap par par' op fuel s c f g; intros.
  apply (fam_recursor_indep zfam_sim zfam_rs zfam_u_ok zfam_failed cap par par' s c (ZSet op fuel f g)); unfold zpre; auto 8.
Qed.

Theorem zoom_outcome_recursor_indep_not : forall cap par par' fuel s c f,
  ZbddOK s -> ZChainOK s -> ZCacheOKB s c -> ref_ok s f -> ZFUEL s <= fuel ->
  gres_code (zapply_not_c gt C cget cadd cap par fuel s c f) =
  gres_code (zapply_not_c gt C cget cadd cap par' fuel s c f).
Proof.
  intros cap par par' fuel s c f; intros.
  apply (fam_recursor_indep zfam_sim zfam_rs zfam_u_ok zfam_failed cap par par' s c (ZNot fuel f)); unfold zpre; auto 8.
Qed.

Theorem zoom_outcome_recursor_indep_op : forall cap par par' op fuel s c f g,
  ZbddOK s -> ZChainOK s -> ZCacheOKB s c -> ref_ok s f -> ref_ok s g -> ZFUEL s <= fuel ->
  gres_code (zapply_op_c gt C cget cadd cap par fuel s c op f g) =
  gres_code (zapply_op_c gt C cget cadd cap par' fuel s c op f g).
Proof.
  intros cap par par' op fuel s c f g; intros.
  apply (fam_recursor_indep zfam_sim zfam_rs zfam_u_ok zfam_failed cap par par' s c (ZOp op fuel f g)); unfold zpre; auto 8.
Qed.

Theorem zoom_outcome_recursor_indep_ite : forall cap par par' fuel s c f g h,
  ZbddOK s -> ZChainOK s -> ZCacheOKB s c -> ref_ok s f -> ref_ok s g -> ref_ok s h -> ZFUEL s <= fuel ->
  gres_code (zapply_ite_c gt C cget cadd cap par fuel s c f g h) =
  gres_code (zapply_ite_c gt C cget cadd cap par' fuel s c f g h).
Proof.
  intros cap par par' fuel s c f g h; intros.
  apply (fam_recursor_indep zfam_sim zfam_rs zfam_u_ok zfam_failed cap par par' s c (ZIte fuel f g h)); unfold zpre; auto 8.
Qed.

End Top.

(** ** [singleton_edge]: one insertion.  On failure no table is returned: the
    manager is untouched. *)

Theorem zoom_singleton_exact : forall cap s var, ZbddOK s -> var < length (s_v2l s) ->
  exists vl s' r R, nth_error (s_v2l s) var = Some vl /\ zsingleton s var = Some (s', r) /\
    ZbddOK s' /\ extends s s' /\ ref_ok s' r /\ fam_of s' r = Some R /\ feq R (f_singleton vl) /\
    (node_count s' <= Nat.max cap (node_count s) -> zsingleton_cap cap s var = Some (Some (s', r))) /\
    (Nat.max cap (node_count s) < node_count s' ->
       zsingleton_cap cap s var = Some None /\ cap <= node_count s).
Proof.
  intros cap s var B Hv.
  destruct (zsingleton_sound s var B Hv) as (vl & s' & r & R & Ev & Es & B' & X & Or & ER & Hq).
  exists vl, s', r, R. repeat (split; [assumption|]).
  apply (leaf1_exact ref cap s). rewrite <- Es. apply zsingleton_cap_sim.
Qed.

Theorem zoom_singleton_never_wrong : forall cap s var s' r,
  zsingleton_cap cap s var = Some (Some (s', r)) -> zsingleton s var = Some (s', r).
Proof.
  intros cap s var s' r. apply (leaf1_never_wrong ref cap s), zsingleton_cap_sim.
Qed.
