(** * Out-of-memory behaviour of subset0 / subset1 / change / var / not_var / restrict
    of the ZBDD rule set (Mgr/OomZbddV.v), part 1

    Facts that need no invariant (every table, cache, fuel, capacity, recursor):
    [z*_sim] - when the bounded algorithm returns [GOk s' c' r] the unbounded
    algorithm of DD/ZbddOps.v / DD/ZbddBool.v returns literally [Some (s', c', r)]
    and at most [cap] nodes are stored unless nothing was inserted; when it
    returns [GOom s' c'] no node has disappeared and the store is full; when the
    unbounded algorithm returns a table that fits, the bounded one returns
    exactly that result.  The unbounded algorithms with a cache are the same
    terms with [ubind] / [ujoin2] / [ufin] once these are unfolded, so both sides
    are walked in lockstep and [gjoin2_sim] applies as it stands; the
    (pair-valued) cache-less helpers [zdc_wrap], [zvar], [zrestrict_base] are
    first brought into that shape ([*_U] lemmas, by a destruct). *)

From Coq Require Import List NArith PArith Bool Arith Lia FMapPositive.
From OxiVerif Require Import DD.Table DD.TableProofs DD.Sem DD.Build DD.BuildProofs
  DD.Apply DD.FamSpec DD.ZbddOps DD.ZbddBool Mgr.Oom Mgr.OomProofs.
From OxiVerif Require Import Mgr.OomGen Mgr.OomGenProofs Mgr.OomBcddProofs Mgr.OomZbdd Mgr.OomZbddProofs
  Mgr.OomZbddV.
Import ListNotations.

(** the cache-less helpers of DD/ZbddBool.v with the cache threaded through *)
Definition zpair_u {C : Type} (c : C) (x : snap * ref) : option (snap * C * ref) :=
  let '(s', r) := x in Some (s', c, r).

Definition zopt_u {C : Type} (c : C) (x : option (snap * ref)) : option (snap * C * ref) :=
  match x with Some (s', r) => Some (s', c, r) | None => None end.

Section Sim.
Variable gt : ref -> ref -> bool.
Variable C : Type.
Variable cget : C -> N -> list ref -> list nat -> option ref.
Variable cadd : C -> N -> list ref -> list nat -> ref -> C.
Variable cap : nat.
Variable par : nat -> bool.
Variable pin : nat -> bool.

Notation SIM := (sim C no_m2 cap 1).

(** ** Leaves *)

Lemma zgoi_leaf : forall s lvl hi lo,
  leaf_rel no_m2 cap 1 s (zgoi_cap cap s lvl hi lo)
    (let '(s', e) := get_or_insert s lvl [E hi; E lo] in (s', eref e)).
Proof.
  intros s lvl hi lo. unfold zgoi_cap.
  apply (leaf_map no_m2 cap 1 edge ref s _ _ (fun e => eref e)).
  apply goi_leaf. exact no_m2_terms.
Qed.

(** [reduce(..)?] whose result is cached *)
Lemma zfin_add_sim : forall s2 c2 lvl hi lo (kc : ref -> C),
  SIM s2 (gfin s2 c2 (zmk_node_cap cap s2 lvl hi lo) kc (fun h => h))
         (ufin (zmk_node s2 lvl hi lo) kc (fun h => h)).
Proof. intros. apply gfin_sim. apply zmk_node_leaf. Qed.

(** ** subset0 / subset1 / change *)

Lemma zsubset_below_sim : forall s c op f vl,
  SIM s (zsubset_below_c C cap s c op f vl) (zsubset_below C s c op f vl).
Proof.
  intros s c op f vl. unfold zsubset_below, zsubset_below_c.
  destruct op.
  - apply sim_here.
  - destruct (zempty s); [apply sim_here | apply sim_stuck].
  - destruct (zempty s); [apply zfin_sim | apply sim_stuck].
Qed.

Theorem zsubset_sim : forall fuel s c op f var vl,
  SIM s (zsubset_c C cget cadd cap par fuel s c op f var vl) (zsubset C cget cadd fuel s c op f var vl).
Proof.
  induction fuel as [|n IH]; intros s c op f var vl; [apply sim_stuck|].
  cbn [zsubset_c zsubset].
  destruct (zget s f) as [[v|nd]|]; [apply zsubset_below_sim | | apply sim_stuck].
  destruct (Nat.compare (nstored nd) vl).
  - destruct (nchildren nd) as [|fhi [|flo [|x rest]]]; try apply sim_stuck.
    destruct op; [apply sim_here | apply sim_here | apply zfin_sim].
  - destruct (cget c (zsub_code op) [f] [var]); [apply sim_here|].
    destruct (nchildren nd) as [|fhi [|flo [|x rest]]]; try apply sim_stuck.
    apply gjoin2_sim; [apply IH | intros; apply IH | intros; apply zfin_add_sim].
  - apply zsubset_below_sim.
Qed.

Theorem zsubset_top_sim : forall fuel s c op f var,
  SIM s (zsubset_top_c C cget cadd cap par fuel s c op f var) (zsubset_top C cget cadd fuel s c op f var).
Proof.
  intros. unfold zsubset_top_c, zsubset_top.
  destruct (nth_error (s_v2l s) var); [apply zsubset_sim | apply sim_stuck].
Qed.

(** ** The don't-care loop *)

(** [zdc_wrap] in the shape of the bounded loop *)
Lemma zdc_wrap_U : forall cnt level s (c : C) e,
  zpair_u c (zdc_wrap level cnt s e) =
    match cnt with
    | O => Some (s, c, e)
    | S k =>
      ubind (ufin (let '(s', e') := get_or_insert s (level + k) [E e; E e] in (s', eref e'))
                  (fun _ => c) (fun h => h))
        (fun s' c' e' => zpair_u c' (zdc_wrap level k s' e'))
    end.
Proof.
  intros [|k] level s c e; [reflexivity|]. simpl zdc_wrap.
  destruct (get_or_insert s (level + k) [E e; E e]) as [s' e']. reflexivity.
Qed.

Theorem zdc_wrap_sim : forall cnt level s c e,
  SIM s (zdc_wrap_c C cap level cnt s c e) (zpair_u c (zdc_wrap level cnt s e)).
Proof.
  induction cnt as [|k IH]; intros level s c e; rewrite zdc_wrap_U; [apply sim_here|].
  simpl zdc_wrap_c. apply gbind_sim.
  - apply gfin_sim. apply zgoi_leaf.
  - intros s1 c1 x. apply IH.
Qed.

(** ** [var_edge], [not_var_edge] *)

Lemma zvar_U : forall s (c : C) var,
  zvar_u C s c var =
    match nth_error (s_v2l s) var, zempty s with
    | Some level, Some lo =>
      match ztaut s (S level) with
      | Some hi =>
        ubind (ufin (let '(s', e) := get_or_insert s level [E hi; E lo] in (s', eref e))
                    (fun _ => c) (fun h => h))
          (fun s1 c1 e => zpair_u c1 (zdc_wrap 0 level s1 e))
      | None => None
      end
    | _, _ => None
    end.
Proof.
  intros s c var. unfold zvar_u, zvar.
  destruct (nth_error (s_v2l s) var) as [level|]; [|reflexivity].
  destruct (zempty s) as [lo|]; [|reflexivity].
  destruct (ztaut s (S level)) as [hi|]; [|reflexivity].
  destruct (get_or_insert s level [E hi; E lo]) as [s1 e]. simpl.
  destruct (zdc_wrap 0 level s1 (eref e)) as [s2 r]. reflexivity.
Qed.

Theorem zvar_sim : forall s c var, SIM s (zvar_c C cap s c var) (zvar_u C s c var).
Proof.
  intros s c var. rewrite zvar_U. unfold zvar_c.
  destruct (nth_error (s_v2l s) var) as [level|]; [|apply sim_stuck].
  destruct (zempty s) as [lo|]; [|apply sim_stuck].
  destruct (ztaut s (S level)) as [hi|]; [|apply sim_stuck].
  apply gbind_sim.
  - apply gfin_sim. apply zgoi_leaf.
  - intros s1 c1 x. apply zdc_wrap_sim.
Qed.

Lemma znot_var_U : forall fuel s c var,
  znot_var gt C cget cadd fuel s c var =
    ubind (zvar_u C s c var) (fun s1 c1 e => zapply_not gt C cget cadd fuel s1 c1 e).
Proof.
  intros fuel s c var. unfold znot_var, zvar_u. destruct (zvar s var) as [[s1 e]|]; reflexivity.
Qed.

Theorem znot_var_sim : forall fuel s c var,
  SIM s (znot_var_c gt C cget cadd cap pin fuel s c var) (znot_var gt C cget cadd fuel s c var).
Proof.
  intros fuel s c var. rewrite znot_var_U. unfold znot_var_c.
  apply gbind_sim; [apply zvar_sim | intros; apply zapply_not_sim].
Qed.

(** ** [restrict_base] *)

Lemma zrestrict_base_U : forall n s (c : C) vars level,
  zopt_u c (zrestrict_base (S n) s vars level) =
    match zget s vars with
    | None => None
    | Some (ZT _) =>
      match ztaut s level with Some t => Some (s, c, t) | None => None end
    | Some (ZI nd) =>
      match nchildren nd with
      | [hi; lo] =>
        if negb (ref_eqb (eref hi) (eref lo)) then
          match zempty s with Some e => Some (s, c, e) | None => None end
        else
          ubind (zopt_u c (zrestrict_base n s (eref hi) (S (nstored nd))))
            (fun s1 c1 res =>
               if Nat.ltb level (nstored nd) && negb (is_empty_b s1 res)
               then zpair_u c1 (zdc_wrap level (nstored nd - level) s1 res)
               else Some (s1, c1, res))
      | _ => None
      end
    end.
Proof.
  intros n s c vars level. simpl zrestrict_base.
  destruct (zget s vars) as [[v|nd]|]; [|  |reflexivity].
  - destruct (ztaut s level); reflexivity.
  - destruct (nchildren nd) as [|hi [|lo [|x rest]]]; try reflexivity.
    destruct (negb (ref_eqb (eref hi) (eref lo))); [destruct (zempty s); reflexivity|].
    destruct (zrestrict_base n s (eref hi) (S (nstored nd))) as [[s1 res]|]; [|reflexivity].
    simpl. destruct (Nat.ltb level (nstored nd) && negb (is_empty_b s1 res)); [|reflexivity].
    destruct (zdc_wrap level (nstored nd - level) s1 res) as [s2 r]. reflexivity.
Qed.

Theorem zrestrict_base_sim : forall fuel s c vars level,
  SIM s (zrestrict_base_c C cap fuel s c vars level) (zopt_u c (zrestrict_base fuel s vars level)).
Proof.
  induction fuel as [|n IH]; intros s c vars level; [apply sim_stuck|].
  cbn [zrestrict_base_c]. rewrite zrestrict_base_U.
  destruct (zget s vars) as [[v|nd]|]; [| |apply sim_stuck].
  - destruct (ztaut s level); [apply sim_here | apply sim_stuck].
  - destruct (nchildren nd) as [|hi [|lo [|x rest]]]; try apply sim_stuck.
    destruct (negb (ref_eqb (eref hi) (eref lo))).
    + destruct (zempty s); [apply sim_here | apply sim_stuck].
    + apply gbind_sim; [apply IH|]. intros s1 c1 res.
      destruct (Nat.ltb level (nstored nd) && negb (is_empty_b s1 res)); [apply zdc_wrap_sim | apply sim_here].
Qed.

(** ** [restrict] *)

Theorem zrestrict_sim : forall fuel s c f vars level,
  SIM s (zrestrict_c C cget cadd cap par fuel s c f vars level) (zrestrict C cget cadd fuel s c f vars level).
Proof.
  induction fuel as [|n IH]; intros s c f vars level; [apply sim_stuck|].
  cbn [zrestrict_c zrestrict].
  destruct (zget s f) as [[v|fnd]|]; [| |apply sim_stuck].
  - destruct (N.eqb v 0); [apply sim_here | apply zrestrict_base_sim].
  - destruct (zget s vars) as [vnode|]; [|apply sim_stuck].
    destruct (nchildren fnd) as [|fhi [|flo [|x rest]]]; try apply sim_stuck.
    assert (LO : SIM s
              (gbind (zrestrict_c C cget cadd cap par n s c
                        (if Nat.eqb (nstored fnd) level then eref flo else f) vars (S level))
                 (fun s1 c1 child => zfin_c C cap s1 c1 level child child))
              (ubind (zrestrict C cget cadd n s c
                        (if Nat.eqb (nstored fnd) level then eref flo else f) vars (S level))
                 (fun s1 c1 child => zufin C s1 c1 level child child)))
      by (apply gbind_sim; [apply IH | intros; apply zfin_sim]).
    destruct (lcmp (vlevel vnode) (Some level)); [|exact LO|exact LO].
    destruct (zkids vnode) as [[vhi vlo]|]; [|apply sim_stuck].
    destruct (negb (ref_eqb vhi vlo)).
    + destruct (negb (Nat.eqb (nstored fnd) level)).
      * destruct (zempty s); [apply sim_here | apply sim_stuck].
      * apply gbind_sim; [apply IH | intros; apply zfin_sim].
    + destruct (negb (Nat.eqb (nstored fnd) level)); [apply IH|].
      destruct (cget c zcode_restrict [f; vars] [nlevels s]); [apply sim_here|].
      apply gjoin2_sim; [apply IH | intros; apply IH | intros; apply zfin_add_sim].
Qed.

Theorem zrestrict_edge_sim : forall fuel s c f vars,
  SIM s (zrestrict_edge_c C cget cadd cap par fuel s c f vars) (zrestrict_edge C cget cadd fuel s c f vars).
Proof. intros. apply zrestrict_sim. Qed.

(** ** The four families at once *)

Theorem zvrun_sim : forall fuel s c k,
  SIM s (zvrun_c gt C cget cadd cap par pin fuel s c k) (zvrun_u gt C cget cadd fuel s c k).
Proof.
  intros fuel s c [op f var|f vars|var|var]; simpl.
  - apply zsubset_top_sim.
  - apply zrestrict_edge_sim.
  - apply zvar_sim.
  - apply znot_var_sim.
Qed.

End Sim.
