(** * Out-of-memory behaviour of subset0 / subset1 / change / var / not_var / restrict
    of the ZBDD rule set (Mgr/OomZbddV.v), part 2

    Under the invariant of the C02 / C04 / C09 theorems for ZBDDs ([ZbddOK], the
    tautology chain [ZChainOK], [ZCacheOKB]; operands valid, the variable
    known, [vars] a cube; standard fuel): [z*_c_safe] - the bounded algorithms
    never get stuck, and whatever they return - result or out-of-memory - the
    table they leave is a well-formed ZBDD table (with its tautology chain)
    extending the one they started from, with a correct cache.  In particular
    the tables left by a failure in the middle of a don't-care loop
    ([zdc_wrap_c_fs]: every prefix of the loop keeps the invariant).

    As in Mgr/OomZbddSafe.v only the failure paths are walked ([fail_safe]:
    sub-call preconditions); the [GOk] case is the refinement [z*_sim] plus the
    theorem of the unbounded model ([zsubset_ok], [zvar_ok], [znot_var_ok],
    [zrestrict_base_ok], [zrestrict_ok]). *)

From Coq Require Import List NArith PArith Bool Arith Lia FMapPositive.
From OxiVerif Require Import DD.Table DD.TableProofs DD.Canon DD.Sem DD.Build DD.BuildProofs
  DD.Apply DD.FamSpec DD.FamSpecProofs DD.ZbddOps DD.ZbddOpsProofs DD.ZbddSubsetProofs DD.ZbddSoundProofs
  DD.ZbddVars DD.ZbddVarsProofs DD.ZbddBool DD.ZbddBoolProofs DD.ZbddXorProofs DD.ZbddIteProofs
  DD.ZbddEvalProofs DD.ZbddRestrictProofs DD.ZbddRestrictTop
  Mgr.Oom Mgr.OomProofs.
From OxiVerif Require Import Mgr.OomGen Mgr.OomGenProofs Mgr.OomBcddProofs Mgr.OomZbdd Mgr.OomZbddProofs
  Mgr.OomZbddSafe Mgr.OomZbddV Mgr.OomZbddVProofs.
Import ListNotations.

(** ** One insertion, structurally *)

(** [get_or_insert(lvl, [hi, lo])] with a non-Empty [hi]: the node it returns *)
Lemma zgoi_struct : forall s lvl hi lo s' e,
  ZbddOK s -> lvl < nlevels s -> ref_ok s hi -> ref_ok s lo ->
  lvl < rlevel s hi -> lvl < rlevel s lo -> is_empty_b s hi = false ->
  get_or_insert s lvl [E hi; E lo] = (s', e) ->
  ZbddOK s' /\ extends s s' /\ ref_ok s' (eref e) /\ rlevel s' (eref e) = lvl /\
  is_empty_b s' (eref e) = false.
Proof.
  intros s lvl hi lo s' e B Hl Oh Ol Lh Ll Hne Eg.
  destruct (zden_exists s hi B Oh) as [PA DA]. destruct (zden_exists s lo B Ol) as [PB DB].
  assert (Em : zmk_node s lvl hi lo = (s', eref e)) by (unfold zmk_node; rewrite Hne, Eg; reflexivity).
  destruct (zmk_node_ok s lvl hi lo PA PB s' (eref e) B Hl DA DB Lh Ll Em) as (B' & X & D & _).
  split; [exact B'|]. split; [exact X|]. split; [apply (zden_ok _ _ _ D)|].
  unfold get_or_insert in Eg. destruct (find_dup s lvl [E hi; E lo]) as [id|] eqn:Ed.
  - inversion Eg; subst s' e. simpl eref. destruct (find_dup_some s lvl _ id Ed) as [nd [E0 [El _]]].
    split; [rewrite (rlevel_node s id nd E0); exact El | reflexivity].
  - injection Eg as Hs He. subst s' e. simpl eref. split; [|reflexivity].
    rewrite (rlevel_node _ _ _ (ins_find_new s lvl [E hi; E lo])). reflexivity.
Qed.

(** ** subset0 / subset1 / change under the full cache invariant
    (as [zsubset_okB] of Mgr/HistoryZBase.v, restated here to keep the imports small) *)

Section SubsetB.
Variable C : Type.
Variable cget : C -> N -> list ref -> list nat -> option ref.
Variable cadd : C -> N -> list ref -> list nat -> ref -> C.
Hypothesis Hlossy : zlossy C cget cadd.

Lemma zsubset_below_cache : forall s c op f vl s' c' r,
  zsubset_below C s c op f vl = Some (s', c', r) -> c' = c.
Proof.
  intros s c op f vl s' c' r E. unfold zsubset_below in E.
  destruct op; [congruence | destruct (zempty s); congruence |].
  destruct (zempty s) as [e|]; [|discriminate]. destruct (zmk_node s vl f e). congruence.
Qed.

Lemma zv_subset_served : forall op var vl fuel s c f s' c' r,
  zsubset C cget cadd fuel s c op f var vl = Some (s', c', r) ->
  served_by C cget c c' (fun k => k = zsub_code op).
Proof.
  intros op var vl. induction fuel as [|n IH]; intros s c f s' c' r E; [discriminate|].
  rewrite (zsubset_S C cget cadd) in E.
  destruct (zget s f) as [[v|nd]|]; [| |discriminate].
  - rewrite (zsubset_below_cache _ _ _ _ _ _ _ _ E). apply served_refl.
  - destruct (Nat.compare (nstored nd) vl).
    + assert (c' = c); [|subst c'; apply served_refl].
      destruct (nchildren nd) as [|fhi [|flo [|x rest]]]; try discriminate.
      destruct op; [congruence | congruence |].
      destruct (zmk_node s (nstored nd) (eref flo) (eref fhi)). congruence.
    + destruct (cget c (zsub_code op) [f] [var]); [inversion E; subst; apply served_refl|].
      destruct (nchildren nd) as [|fhi [|flo [|x rest]]]; try discriminate.
      destruct (zsubset C cget cadd n s c op (eref fhi) var vl) as [[[s1 c1] hi]|] eqn:E1; [|discriminate].
      destruct (zsubset C cget cadd n s1 c1 op (eref flo) var vl) as [[[s2 c2] lo]|] eqn:E2; [|discriminate].
      destruct (zmk_node s2 (nstored nd) hi lo) as [s3 h]. inversion E; subst.
      apply (served_trans C cget c c1); [apply (IH _ _ _ _ _ _ E1)|].
      apply (served_trans C cget c1 c2); [apply (IH _ _ _ _ _ _ E2)|].
      apply (served_add C cget cadd Hlossy). reflexivity.
    + rewrite (zsubset_below_cache _ _ _ _ _ _ _ _ E). apply served_refl.
Qed.

Theorem zv_subset_okB : forall op var vl fuel s c f P,
  ZbddOK s -> ZCacheOKB C cget s c -> ZDen s f P -> nth_error (s_v2l s) var = Some vl ->
  nlevels s - rlevel s f < fuel ->
  zresult_okB C cget s (zsubset C cget cadd fuel s c op f var vl) (psub op vl P).
Proof.
  intros op var vl fuel s c f P B O DF Ev Hf.
  destruct (zsubset_ok C cget cadd Hlossy op var vl fuel s c f P B (zcacheokb_ok C cget s c O) DF Ev Hf)
    as (s' & c' & r & E & B' & X & O' & D).
  exists s', c', r. split; [exact E|]. split; [exact B'|]. split; [exact X|]. split; [|exact D].
  intros code args nums x Ex.
  destruct (zv_subset_served op var vl fuel s c f s' c' r E _ _ _ _ Ex) as [E0| ->].
  - apply (zcacheokb_extends C cget s s' c B X O _ _ _ _ E0).
  - split; [apply (O' _ _ _ _ Ex)|]. apply zentry_x_other; destruct op; discriminate.
Qed.

End SubsetB.

Section Safe.
Variable gt : ref -> ref -> bool.
Variable C : Type.
Variable cget : C -> N -> list ref -> list nat -> option ref.
Variable cadd : C -> N -> list ref -> list nat -> ref -> C.
Hypothesis Hlossy : zlossy C cget cadd.
Variable cap : nat.
Variable par : nat -> bool.
Variable pin : nat -> bool.

Notation ZCacheOKB := (ZCacheOKB C cget).
Notation ZINV := (ZInv C cget).
Notation RS := (res_safe (ZInv C cget) extends Qref).
Notation RSQ Q := (res_safe (ZInv C cget) extends Q).
Notation FS := (fail_safe (ZInv C cget) extends).

(** the invariant in an extension *)
Lemma zinv_extends : forall s s' c, ZbddOK s' -> extends s s' -> ZINV s c -> ZINV s' c.
Proof.
  intros s s' c B' X [B [Hch O]]. split; [exact B'|].
  split; [apply (zchain_extends s s' B B' X Hch) | apply (zcacheokb_extends C cget s s' c B X O)].
Qed.

(** [reduce(..)?; cache.add(..)]: on failure the table is the one it was given *)
Lemma zfin_add_fs : forall s c lvl hi lo (kc : ref -> C), ZINV s c ->
  FS s (gfin s c (zmk_node_cap cap s lvl hi lo) kc (fun h => h)).
Proof. intros. apply gfin_safe; [assumption | apply extends_refl]. Qed.

(** one [get_or_insert(..)?] of the loops: what the next iteration needs *)
Definition Qdc (L : nat) (s : snap) (r : ref) : Prop :=
  ref_ok s r /\ is_empty_b s r = false /\ rlevel s r = L.

Lemma zgoi_step_rs : forall s c lvl hi lo, ZINV s c ->
  lvl < nlevels s -> ref_ok s hi -> ref_ok s lo ->
  lvl < rlevel s hi -> lvl < rlevel s lo -> is_empty_b s hi = false ->
  RSQ (Qdc lvl) s (gfin s c (zgoi_cap cap s lvl hi lo) (fun _ => c) (fun h => h)).
Proof.
  intros s c lvl hi lo I0 Hl Oh Ol Lh Ll Hne. unfold zgoi_cap.
  destruct (get_or_insert_cap cap s lvl [E hi; E lo]) as [[s' e]|] eqn:Ec; simpl.
  - destruct (get_or_insert_cap_some cap s lvl _ _ Ec) as [Eg _].
    destruct I0 as [B [Hch O]].
    destruct (zgoi_struct s lvl hi lo s' e B Hl Oh Ol Lh Ll Hne Eg) as (B' & X & Or & Lr & Er).
    split; [apply (zinv_extends s s' c B' X); split; [exact B | split; assumption]|].
    split; [exact X|]. split; [exact Or|]. split; assumption.
  - split; [exact I0 | apply extends_refl].
Qed.

(** ** The don't-care loop: every prefix keeps the invariant *)

Lemma zdc_wrap_c_fs : forall cnt lvl s c e, ZINV s c ->
  ref_ok s e -> is_empty_b s e = false -> lvl + cnt <= rlevel s e ->
  FS s (zdc_wrap_c C cap lvl cnt s c e).
Proof.
  induction cnt as [|k IH]; intros lvl s c e I0 Oe Ee Le; [exact I|].
  simpl zdc_wrap_c.
  assert (B : ZbddOK s) by apply I0. pose proof (rlevel_le s (zo_wf s B) e) as Hle.
  apply (gbind_safe C ZINV extends extends_trans ref ref (Qdc (lvl + k))).
  - apply zgoi_step_rs; auto; lia.
  - intros s1 c1 x I1 X1 (Ox & Ex & Lx). apply IH; auto. lia.
Qed.

(** ** subset0 / subset1 / change *)

Lemma zsubset_below_c_fs : forall s c op f vl, ZINV s c -> FS s (zsubset_below_c C cap s c op f vl).
Proof.
  intros s c op f vl I0. assert (B : ZbddOK s) by apply I0.
  destruct (zempty_spec s B) as [te [Ee _]]. unfold zsubset_below_c. rewrite Ee.
  destruct op; [exact I | exact I | apply zfin_c_fs; exact I0].
Qed.

Theorem zsubset_c_safe : forall op var vl fuel s c f,
  ZbddOK s -> ZChainOK s -> ZCacheOKB s c -> ref_ok s f -> nth_error (s_v2l s) var = Some vl ->
  nlevels s - rlevel s f < fuel ->
  RS s (zsubset_c C cget cadd cap par fuel s c op f var vl).
Proof.
  intros op var vl. induction fuel as [|n IH]; intros s c f B Hch O Of Ev Hfuel; [lia|].
  destruct (zden_exists s f B Of) as [P DF].
  apply (safe_by_sim C no_m2 cap 1 ZINV extends ref Qref s _ _ (zsubset_sim C cget cadd cap par (S n) s c op f var vl)
           (zresultB_ex C cget s _ (psub op vl P) B Hch
              (zv_subset_okB C cget cadd Hlossy op var vl (S n) s c f P B O DF Ev Hfuel))).
  clear DF P.
  assert (I0 : ZINV s c) by (split; [exact B | split; assumption]).
  pose proof (zo_wf s B) as H.
  cbn [zsubset_c].
  destruct f as [t|id].
  - destruct Of as [v Et]. simpl zget. rewrite Et. apply zsubset_below_c_fs. exact I0.
  - destruct Of as [nd En]. simpl zget. rewrite En.
    destruct (znode_struct s id nd B En) as (Sf & Lf & Rf & fhi & flo & Ec & Ofh & Ofl & LA & LB).
    rewrite Ec. rewrite Rf in Hfuel.
    destruct (Nat.compare (nstored nd) vl).
    + destruct op; [exact I | exact I | apply zfin_c_fs; exact I0].
    + destruct (cget c (zsub_code op) [RN id] [var]); [exact I|].
      pose proof (rlevel_le s H (eref fhi)). pose proof (rlevel_le s H (eref flo)).
      apply (gjoin2_safe C ZINV extends extends_trans ref ref ref Qref Qref).
      * apply IH; auto. lia.
      * intros s1 c1 [B1 [Hch1 O1]] X1. apply IH; auto.
        -- apply (ext_ref_ok _ _ _ X1 Ofl).
        -- rewrite (ext_v2l _ _ X1). exact Ev.
        -- rewrite (ext_nlevels _ _ X1), (ext_rlevel _ _ _ X1 Ofl). lia.
      * intros s2 c2 hi lo I2 X2. apply zfin_add_fs. exact I2.
    + apply zsubset_below_c_fs. exact I0.
Qed.

Theorem zsubset_top_c_safe : forall op fuel s c f var,
  ZbddOK s -> ZChainOK s -> ZCacheOKB s c -> ref_ok s f -> var < length (s_v2l s) ->
  nlevels s < fuel ->
  RS s (zsubset_top_c C cget cadd cap par fuel s c op f var).
Proof.
  intros op fuel s c f var B Hch O Of Hv Hfuel. unfold zsubset_top_c.
  destruct (nth_error (s_v2l s) var) as [vl|] eqn:Ev; [|apply nth_error_None in Ev; lia].
  apply zsubset_c_safe; auto. lia.
Qed.

(** ** [var_edge] *)

Theorem zvar_c_safe : forall s c var,
  ZbddOK s -> ZChainOK s -> ZCacheOKB s c -> var < length (s_v2l s) ->
  RS s (zvar_c C cap s c var).
Proof.
  intros s c var B Hch O Hv.
  assert (I0 : ZINV s c) by (split; [exact B | split; assumption]).
  apply (safe_by_sim C no_m2 cap 1 ZINV extends ref Qref s _ _ (zvar_sim C cap s c var)).
  { destruct (zvar_ok s var B Hch Hv) as (L & s1 & r1 & _ & Ez & B1 & X1 & D1).
    exists s1, c, r1. unfold zvar_u. rewrite Ez. split; [reflexivity|].
    split; [apply (zinv_extends s s1 c B1 X1 I0)|]. split; [exact X1 | apply (zden_ok _ _ _ D1)]. }
  pose proof (zo_wf s B) as H.
  unfold zvar_c.
  destruct (nth_error (s_v2l s) var) as [L|] eqn:Ev; [|apply nth_error_None in Ev; lia].
  pose proof (v2l_range s var L H Ev) as HL.
  destruct (zempty_spec s B) as [te [Ee Ete]]. rewrite Ee.
  destruct (ztaut_total s (S L) Hch) as [hi Ehi]. rewrite Ehi.
  pose proof (ztaut_den s (S L) hi B Ehi) as Dhi. rewrite Nat.min_l in Dhi by lia.
  assert (Hne : is_empty_b s hi = false).
  { apply (nonempty_not_empty s hi _ [] B Dhi). split; [exact I | constructor]. }
  assert (Lh : L < rlevel s hi).
  { apply (zden_level s hi _ (S L) B Dhi); [lia|]. intros S [Hi _]. exact Hi. }
  apply (gbind_safe C ZINV extends extends_trans ref ref (Qdc L)).
  - apply zgoi_step_rs; auto; [apply (zden_ok _ _ _ Dhi) | exists 0%N; exact Ete].
  - intros s1 c1 x I1 X1 (Ox & Ex & Lx). apply zdc_wrap_c_fs; auto. lia.
Qed.

(** ** [not_var_edge] *)

Theorem znot_var_c_safe : forall fuel s c var,
  ZbddOK s -> ZChainOK s -> ZCacheOKB s c -> var < length (s_v2l s) -> nlevels s < fuel ->
  RS s (znot_var_c gt C cget cadd cap pin fuel s c var).
Proof.
  intros fuel s c var B Hch O Hv Hfuel. unfold znot_var_c.
  apply (then_not_c_safe gt C cget cadd Hlossy cap pin); auto.
  apply zvar_c_safe; auto.
Qed.

(** ** [restrict_base] *)

(** the result of [restrict_base(vars, lvl)] lies at or below [lvl] *)
Definition Qlev (lvl : nat) (s : snap) (r : ref) : Prop := ref_ok s r /\ lvl <= rlevel s r.

Theorem zrestrict_base_c_safe : forall fuel s c vars lvl M,
  ZbddOK s -> ZChainOK s -> ZCacheOKB s c -> ZCube s M lvl vars -> lvl <= nlevels s ->
  nlevels s - lvl < fuel ->
  RSQ (Qlev lvl) s (zrestrict_base_c C cap fuel s c vars lvl).
Proof.
  induction fuel as [|n IH]; intros s c vars lvl M B Hch O Hc Hl Hfuel; [lia|].
  assert (I0 : ZINV s c) by (split; [exact B | split; assumption]).
  apply (safe_by_sim C no_m2 cap 1 ZINV extends ref (Qlev lvl) s _ _ (zrestrict_base_sim C cap (S n) s c vars lvl)).
  { destruct (zrestrict_base_ok (S n) s vars lvl M B Hch Hc Hl Hfuel) as (s1 & r1 & Ez & B1 & X1 & D1).
    exists s1, c, r1. rewrite Ez. split; [reflexivity|].
    split; [apply (zinv_extends s s1 c B1 X1 I0)|]. split; [exact X1|].
    split; [apply (zden_ok _ _ _ D1)|].
    apply (zden_level s1 r1 _ lvl B1 D1); [rewrite (ext_nlevels _ _ X1); exact Hl|].
    intros S [Hi _]. exact Hi. }
  pose proof (zo_wf s B) as H.
  cbn [zrestrict_base_c].
  destruct Hc as [lvl t Et Hneg | lvl id nd hi En Ec Hle Hneg Hm Hc' | lvl id nd hi lo En Ec Hne He Hle Hneg Hm Hc'].
  - simpl zget. rewrite Et. destruct (ztaut_total s lvl Hch) as [ta Eta]. rewrite Eta. exact I.
  - pose proof (wf_level s H id nd En) as HL.
    simpl zget. rewrite En, Ec. simpl eref. rewrite (proj2 (ref_eqb_eq hi hi) eq_refl). simpl negb. cbv iota.
    rewrite (wf_stored s H id nd En).
    apply (gbind_safe C ZINV extends extends_trans ref ref (Qlev (S (nlevel nd)))).
    + apply (IH s c hi (S (nlevel nd)) M); auto; lia.
    + intros s1 c1 res I1 X1 [Ores Lres].
      destruct (Nat.ltb lvl (nlevel nd) && negb (is_empty_b s1 res)) eqn:Econd; [|exact I].
      apply andb_true_iff in Econd. destruct Econd as [Hlt Hne]. apply Nat.ltb_lt in Hlt.
      apply negb_true_iff in Hne.
      apply zdc_wrap_c_fs; auto. lia.
  - simpl zget. rewrite En, Ec. simpl eref.
    destruct (ref_eqb hi lo) eqn:Er; [apply ref_eqb_eq in Er; contradiction|]. simpl negb. cbv iota.
    destruct (zempty_spec s B) as [te [Ee Ete]]. rewrite Ee. exact I.
Qed.

(** ** [restrict] *)

Theorem zrestrict_c_safe : forall fuel s c f vars lvl M,
  ZbddOK s -> ZChainOK s -> ZCacheOKB s c -> ref_ok s f -> ZCube s M lvl vars ->
  lvl <= rlevel s f -> nlevels s - lvl < fuel ->
  RS s (zrestrict_c C cget cadd cap par fuel s c f vars lvl).
Proof.
  induction fuel as [|n IH]; intros s c f vars lvl M B Hch O Of Hc Hlf Hfuel; [lia|].
  assert (I0 : ZINV s c) by (split; [exact B | split; assumption]).
  destruct (zden_exists s f B Of) as [P DF].
  apply (safe_by_sim C no_m2 cap 1 ZINV extends ref Qref s _ _ (zrestrict_sim C cget cadd cap par (S n) s c f vars lvl)
           (zresultB_ex C cget s _ (prestr (nlevels s) M lvl P) B Hch
              (zrestrict_ok C cget cadd Hlossy (S n) s c f vars lvl P M B Hch O DF Hc Hlf Hfuel))).
  clear DF P.
  pose proof (zo_wf s B) as H.
  cbn [zrestrict_c].
  destruct f as [t|idf].
  - (* terminal operand *)
    destruct Of as [v Ev]. simpl zget. rewrite Ev.
    destruct (N.eqb v 0); [exact I|].
    simpl in Hlf.
    apply (res_fail_safe C ZINV extends ref (Qlev lvl)).
    apply (zrestrict_base_c_safe (S n) s c vars lvl M); auto.
  - (* inner operand *)
    destruct Of as [fnd Enf]. simpl zget. rewrite Enf.
    destruct (znode_struct s idf fnd B Enf) as (Sf & Lf & Rf & fhi & flo & Ecf & Ofh & Ofl & LA & LB).
    rewrite Rf in Hlf. rewrite Ecf, Sf.
    assert (Hl : lvl < nlevels s) by lia.
    assert (Of : ref_ok s (RN idf)) by (exists fnd; exact Enf).
    (* a recursive call followed by [reduce1] *)
    assert (Rec1 : forall x vars', ref_ok s x -> ZCube s M (S lvl) vars' -> S lvl <= rlevel s x ->
              FS s (gbind (zrestrict_c C cget cadd cap par n s c x vars' (S lvl))
                      (fun s1 c1 child => zfin_c C cap s1 c1 lvl child child))).
    { intros x vars' Ox Hc' Lx.
      apply (gbind_safe C ZINV extends extends_trans ref ref Qref).
      - apply (IH s c x vars' (S lvl) M); auto. lia.
      - intros s1 c1 child I1 X1 _. apply zfin_c_fs. exact I1. }
    destruct (zcube_cases s M lvl vars B Hc Hl)
      as [(vnode & Ev & Hcmp & Hm & Hc')|(vnode & vhi & vlo & Ev & Hcmp & Ekv & Hc' & Hcase)];
      rewrite Ev; cbv zeta.
    + (* negative literal at lvl: LO branch *)
      assert (Hgoal : FS s
                (gbind (zrestrict_c C cget cadd cap par n s c
                          (if Nat.eqb (nlevel fnd) lvl then eref flo else RN idf) vars (S lvl))
                   (fun s1 c1 child => zfin_c C cap s1 c1 lvl child child))).
      { destruct (Nat.eqb_spec (nlevel fnd) lvl) as [Heq|Hneq].
        - apply Rec1; auto. lia.
        - apply Rec1; auto. rewrite Rf. lia. }
      destruct (lcmp (vlevel vnode) (Some lvl)); [contradiction | exact Hgoal | exact Hgoal].
    + rewrite Hcmp, Ekv.
      destruct Hcase as [[Er Hm]|[Er Hm]]; rewrite Er; simpl negb; cbv iota.
      * (* no literal at lvl *)
        destruct (Nat.eqb_spec (nlevel fnd) lvl) as [Heq|Hneq]; simpl negb; cbv iota.
        -- destruct (cget c zcode_restrict [RN idf; vars] [nlevels s]); [exact I|].
           pose proof (rlevel_le s H (eref fhi)). pose proof (rlevel_le s H (eref flo)).
           apply (gjoin2_safe C ZINV extends extends_trans ref ref ref Qref Qref).
           ++ apply (IH s c (eref fhi) vhi (S lvl) M); auto; lia.
           ++ intros s1 c1 [B1 [Hch1 O1]] X1.
              apply (IH s1 c1 (eref flo) vhi (S lvl) M); auto.
              ** apply (ext_ref_ok _ _ _ X1 Ofl).
              ** apply (zcube_extends s s1 M _ _ X1 Hc').
              ** rewrite (ext_rlevel _ _ _ X1 Ofl). lia.
              ** rewrite (ext_nlevels _ _ X1). lia.
           ++ intros s2 c2 hi lo I2 X2. apply zfin_add_fs. exact I2.
        -- apply (res_fail_safe C ZINV extends ref Qref).
           apply (IH s c (RN idf) vhi (S lvl) M); auto; [rewrite Rf; lia | lia].
      * (* positive literal at lvl: HI branch *)
        destruct (Nat.eqb_spec (nlevel fnd) lvl) as [Heq|Hneq]; simpl negb; cbv iota.
        -- apply Rec1; auto. lia.
        -- destruct (zempty_spec s B) as [te [Ee Ete]]. rewrite Ee. exact I.
Qed.

Theorem zrestrict_edge_c_safe : forall fuel s c f vars M,
  ZbddOK s -> ZChainOK s -> ZCacheOKB s c -> ref_ok s f -> ZCube s M 0 vars -> nlevels s < fuel ->
  RS s (zrestrict_edge_c C cget cadd cap par fuel s c f vars).
Proof.
  intros fuel s c f vars M B Hch O Of Hc Hfuel. unfold zrestrict_edge_c.
  apply (zrestrict_c_safe fuel s c f vars 0 M); auto; lia.
Qed.

End Safe.

(** ** The hypotheses on the call, the semantic statement of its result *)

(** operands valid, variable known, [vars] a conjunction of literals *)
Definition zvcall_ok (s : snap) (k : zvcall) : Prop :=
  match k with
  | ZVSubset _ f var => ref_ok s f /\ var < length (s_v2l s)
  | ZVRestrict f vars => ref_ok s f /\ exists lits, zcube_lits (S (nlevels s)) s vars 0 = Some lits
  | ZVVar var | ZVNotVar var => var < length (s_v2l s)
  end.

(** what the result [r] (in the table [s']) of the call [k] started in [s] means:
    - subset0 / subset1 / change: the family of [r] is the documented set
      expression [f_sub] (DD/FamSpec.v) of the family of the operand (C09);
    - restrict: the Boolean function of [r] is the cofactor of the function of
      [f] w.r.t. the literals of the cube (C04);
    - var / not_var: the Boolean view of [r] is "the variable's level is true"
      resp. its negation (C02) *)
Definition zvcall_spec (s : snap) (k : zvcall) (s' : snap) (r : ref) : Prop :=
  match k with
  | ZVSubset op f var =>
    exists vl F R, nth_error (s_v2l s) var = Some vl /\
      fam_of s f = Some F /\ fam_of s' r = Some R /\ feq R (f_sub op vl F)
  | ZVRestrict f vars =>
    forall lits, zcube_lits (S (nlevels s)) s vars 0 = Some lits ->
      (forall c0, choice_ok s c0 -> zview_of s' r c0 = zview_of s f (covr (lits_map lits) c0)) /\
      (forall a, zbfun_of s' r a = restrict_s (lits_vars s lits) (zbfun_of s f) a)
  | ZVVar var =>
    exists L, nth_error (s_v2l s) var = Some L /\
      forall c0, choice_ok s c0 -> zview_of s' r c0 = Some (Nat.eqb (c0 L) 0)
  | ZVNotVar var =>
    exists L, nth_error (s_v2l s) var = Some L /\
      forall c0, choice_ok s c0 -> zview_of s' r c0 = Some (negb (Nat.eqb (c0 L) 0))
  end.

Lemma zref_ok_b_spec : forall s r, zref_ok_b s r = true <-> ref_ok s r.
Proof.
  intros s [t|id]; unfold zref_ok_b; simpl.
  - destruct (term_val s t) as [v|]; split; try discriminate; eauto. intros [v Hv]. discriminate.
  - destruct (find_node s id) as [nd|]; split; try discriminate; eauto. intros [v Hv]. discriminate.
Qed.

Theorem zvcall_ok_b_spec : forall s k, zvcall_ok_b s k = true <-> zvcall_ok s k.
Proof.
  intros s [op f var|f vars|var|var]; unfold zvcall_ok_b, zvcall_ok.
  - rewrite andb_true_iff, zref_ok_b_spec, Nat.ltb_lt. reflexivity.
  - rewrite andb_true_iff, zref_ok_b_spec.
    destruct (zcube_lits (S (nlevels s)) s vars 0) as [lits|].
    + split; intros [A _]; (split; [exact A|]); [exists lits; reflexivity | reflexivity].
    + split; intros [A Bx]; [discriminate | destruct Bx as [l Hl]; discriminate].
  - apply Nat.ltb_lt.
  - apply Nat.ltb_lt.
Qed.
