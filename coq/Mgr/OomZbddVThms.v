(** * Out-of-memory behaviour of subset0 / subset1 / change / var / not_var / restrict
    of the ZBDD rule set (Mgr/OomZbddV.v), part 3

    The C14 statements, for all four families at once (the call [k : zvcall],
    the bounded run [zvrun_c], the unbounded run [zvrun_u] = the entry points of
    DD/ZbddOps.v / DD/ZbddBool.v): [zv_never_wrong], [zv_retry], [zv_monotone]
    (no hypothesis), [zv_never_wrong_sem], [zv_safe], [zv_no_panic], [zv_exact],
    [zv_outcome_recursor_indep] (invariant of the [zoom_*] statements of
    Mgr/OomZbddThms.v: [ZbddOK], [ZChainOK], [ZCacheOKB]; [zvcall_ok]; fuel
    [ZFUEL s <= fuel]); the failed state is [zfailed_ok], exactness [zexact] of
    Mgr/OomZbddThms.v.  The per-family instances are at the end. *)

From Coq Require Import List NArith PArith Bool Arith Lia FMapPositive.
From OxiVerif Require Import DD.Table DD.TableExtra DD.TableProofs DD.Canon DD.Sem DD.Build DD.BuildProofs DD.PickInsert
  DD.Apply DD.ApplyProofs DD.ApplyEvalProofs DD.FamSpec DD.FamSpecProofs DD.ZbddOps DD.ZbddOpsProofs
  DD.ZbddSubsetProofs DD.ZbddSoundProofs DD.ZbddVars DD.ZbddVarsProofs
  DD.ZbddBool DD.ZbddBoolProofs DD.ZbddXorProofs DD.ZbddIteProofs DD.ZbddEvalProofs
  DD.ZbddRestrictProofs DD.ZbddRestrictTop
  Mgr.Oom Mgr.OomProofs.
From OxiVerif Require Import Mgr.OomGen Mgr.OomGenProofs Mgr.OomFamily Mgr.OomBcddProofs Mgr.OomZbdd Mgr.OomZbddProofs
  Mgr.OomZbddSafe Mgr.OomZbddThms Mgr.OomZbddV Mgr.OomZbddVProofs Mgr.OomZbddVSafe.
Import ListNotations.

Section Top.
Variable gt : ref -> ref -> bool.
Variable C : Type.
Variable cget : C -> N -> list ref -> list nat -> option ref.
Variable cadd : C -> N -> list ref -> list nat -> ref -> C.

Notation ZCacheOKB := (ZCacheOKB C cget).
Notation SIM cap := (sim C no_m2 cap 1).
Notation RS := (res_safe (ZInv C cget) extends Qref).
Notation RUNC cap par pin := (zvrun_c gt C cget cadd cap par pin).
Notation RUNU := (zvrun_u gt C cget cadd).

(** ** The family (Mgr/OomFamily.v), one for each amount of fuel: the two
    recursors are its parameter *)

Definition zvrun_p (fuel cap : nat) (p : (nat -> bool) * (nat -> bool)) : snap -> C -> zvcall -> gres C ref :=
  zvrun_c gt C cget cadd cap (fst p) (snd p) fuel.
Definition zvpre (fuel : nat) (s : snap) (c : C) (k : zvcall) : Prop :=
  ZbddOK s /\ ZChainOK s /\ ZCacheOKB s c /\ zvcall_ok s k /\ ZFUEL s <= fuel.

Lemma zvfam_sim : forall fuel cap p s c k, SIM cap s (zvrun_p fuel cap p s c k) (RUNU fuel s c k).
Proof. intros. apply zvrun_sim. Qed.

(** ** Without hypotheses *)

(** never a wrong edge: a result is literally the result of the unbounded run *)
Theorem zv_never_wrong : forall cap par pin fuel s c k s' c' r,
  RUNC cap par pin fuel s c k = GOk s' c' r -> RUNU fuel s c k = Some (s', c', r).
Proof. intros cap par pin fuel. apply (fam_never_wrong (zvfam_sim fuel) cap (par, pin)). Qed.

(** retry: when the table of the unbounded run fits, the bounded run succeeds
    with exactly that result *)
Theorem zv_retry : forall cap par pin fuel s c k su cu ru,
  RUNU fuel s c k = Some (su, cu, ru) -> node_count su <= cap ->
  RUNC cap par pin fuel s c k = GOk su cu ru.
Proof. intros cap par pin fuel. apply (fam_retry (zvfam_sim fuel) cap (par, pin)). Qed.

(** monotone in the capacity, whatever the recursors *)
Theorem zv_monotone : forall cap cap' par par' pin pin' fuel s c k s' c' r, cap <= cap' ->
  RUNC cap par pin fuel s c k = GOk s' c' r -> RUNC cap' par' pin' fuel s c k = GOk s' c' r.
Proof.
  intros cap cap' par par' pin pin' fuel. apply (fam_monotone (zvfam_sim fuel) cap cap' (par, pin) (par', pin')).
Qed.

(** ** Under the invariant *)

Hypothesis Hlossy : zlossy C cget cadd.

(** never stuck; the state after a result and after a failure *)
Lemma zvrun_rs : forall cap par pin fuel s c k,
  ZbddOK s -> ZChainOK s -> ZCacheOKB s c -> zvcall_ok s k -> ZFUEL s <= fuel ->
  RS s (RUNC cap par pin fuel s c k).
Proof.
  intros cap par pin fuel s c k B Hch O Hk Hfuel. unfold ZFUEL in Hfuel.
  destruct k as [op f var|f vars|var|var]; cbn [zvcall_ok zvrun_c zvrun_u zvcall_spec] in Hk |- *.
  - destruct Hk as [Of Hv]. apply (zsubset_top_c_safe C cget cadd Hlossy); auto.
  - destruct Hk as [Of [lits El]].
    destruct (zcube_lits_cube s B _ vars 0 lits El ltac:(lia)) as (_ & _ & Hc).
    apply (zrestrict_edge_c_safe C cget cadd Hlossy cap par fuel s c f vars (lits_map lits)); auto.
  - apply (zvar_c_safe C cget); auto.
  - apply (znot_var_c_safe gt C cget cadd Hlossy); auto.
Qed.

(** the unbounded run returns, and its result means what C02 / C04 / C09 say *)
Lemma zvrun_sound : forall fuel s c k,
  ZbddOK s -> ZChainOK s -> ZCacheOKB s c -> zvcall_ok s k -> ZFUEL s <= fuel ->
  exists su cu ru, RUNU fuel s c k = Some (su, cu, ru) /\ zvcall_spec s k su ru.
Proof.
  intros fuel s c k B Hch O Hk Hfuel. unfold ZFUEL in Hfuel.
  pose proof (zo_wf s B) as H. pose proof (zo_kind s B) as Hkd.
  destruct k as [op f var|f vars|var|var]; cbn [zvcall_ok zvrun_c zvrun_u zvcall_spec] in Hk |- *.
  - destruct Hk as [Of Hv].
    destruct (zsubset_sound C cget cadd Hlossy op fuel s c f var B (zcacheokb_ok C cget s c O) Of Hv Hfuel)
      as (vl & su & cu & ru & F & R & Ev & Eu & _ & _ & _ & _ & EF & ER & Hq).
    exists su, cu, ru. split; [exact Eu|]. exists vl, F, R. auto.
  - destruct Hk as [Of [lits El]].
    destruct (zcube_lits_cube s B _ vars 0 lits El ltac:(lia)) as (Hi & Hb & Hc).
    pose proof (incr_from_nodup _ _ Hi) as Hnd.
    destruct (zrestrict_edge_cube C cget cadd Hlossy fuel s c f vars (lits_map lits) B Hch O Of Hc Hfuel)
      as (su & cu & ru & Eu & St & Hv).
    exists su, cu, ru. split; [exact Eu|].
    intros lits' El'. rewrite El in El'. inversion El'; subst lits'. split; [exact Hv|].
    intros a. destruct St as (B' & _ & X & _ & _).
    rewrite restrict_s_apply. unfold zbfun_of at 1 2.
    rewrite (choice_of_ext s su a X), (Hv _ (choice_of_ok s a Hkd)).
    unfold zview_of.
    apply (f_equal (fun o : option bool => match o with Some true => true | _ => false end)).
    symmetry. apply (semz_ext_lt s H).
    intros l _. apply (choice_of_fold_upd s H lits a l Hb Hnd).
  - destruct (zvar_sound s var B Hch Hk) as (L & su & ru & Ev & Ez & _ & _ & _ & _ & Hv).
    exists su, c, ru. split; [unfold zvar_u; rewrite Ez; reflexivity|]. exists L. auto.
  - destruct (znot_var_sound gt C cget cadd Hlossy fuel s c var B Hch O Hk Hfuel)
      as (L & su & cu & ru & Ev & Eu & _ & Hv).
    exists su, cu, ru. split; [exact Eu|]. exists L. auto.
Qed.

Lemma zvfam_rs : forall fuel cap p s c k, zvpre fuel s c k -> RS s (zvrun_p fuel cap p s c k).
Proof. intros fuel cap p s c k [B [Hch [O [Hk Hf]]]]. apply zvrun_rs; assumption. Qed.

Lemma zvfam_u_ok : forall fuel s c k, zvpre fuel s c k ->
  exists su cu ru, RUNU fuel s c k = Some (su, cu, ru) /\ zvcall_spec s k su ru.
Proof. intros fuel s c k [B [Hch [O [Hk Hf]]]]. apply zvrun_sound; assumption. Qed.

Lemma zvfam_failed : forall fuel cap s c k s' c', zvpre fuel s c k ->
  failed1 C (ZInv C cget) extends cap s s' c' -> zfailed_ok C cget cap s s' c'.
Proof.
  intros fuel cap s c k s' c' [B _] [[B' [Hch' O']] [X [G F]]].
  split; [exact B'|]. split; [exact Hch'|]. split; [exact O'|]. split; [exact X|].
  split; [apply (extends_intact_z s s' B X)|]. auto.
Qed.

(** a result is the correct one, in a table in which everything that existed
    before is intact *)
Theorem zv_never_wrong_sem : forall cap par pin fuel s c k s' c' r,
  ZbddOK s -> ZChainOK s -> ZCacheOKB s c -> zvcall_ok s k -> ZFUEL s <= fuel ->
  RUNC cap par pin fuel s c k = GOk s' c' r ->
  ZbddOK s' /\ ZChainOK s' /\ ZCacheOKB s' c' /\ intact_z s s' /\ ref_ok s' r /\ zvcall_spec s k s' r.
Proof.
  intros cap par pin fuel s c k s' c' r B Hch O Hk Hfuel E.
  destruct (fam_never_wrong_sem (zvfam_sim fuel) (zvfam_rs fuel) (zvfam_u_ok fuel) cap (par, pin) s c k s' c' r
              (conj B (conj Hch (conj O (conj Hk Hfuel)))) E) as [[B' [Hch' O']] [X R]].
  split; [exact B'|]. split; [exact Hch'|]. split; [exact O'|].
  split; [apply (extends_intact_z s s' B X) | exact R].
Qed.

(** the state after a failure *)
Theorem zv_safe : forall cap par pin fuel s c k s' c',
  ZbddOK s -> ZChainOK s -> ZCacheOKB s c -> zvcall_ok s k -> ZFUEL s <= fuel ->
  RUNC cap par pin fuel s c k = GOom s' c' -> zfailed_ok C cget cap s s' c'.
Proof.
  intros cap par pin fuel s c k s' c' B Hch O Hk Hfuel.
  apply (fam_safe (zvfam_sim fuel) (zvfam_rs fuel) (zvfam_failed fuel) cap (par, pin) s c k s' c'
           (conj B (conj Hch (conj O (conj Hk Hfuel))))).
Qed.

(** no panic, no divergence *)
Theorem zv_no_panic : forall cap par pin fuel s c k,
  ZbddOK s -> ZChainOK s -> ZCacheOKB s c -> zvcall_ok s k -> ZFUEL s <= fuel ->
  RUNC cap par pin fuel s c k <> GStuck.
Proof.
  intros cap par pin fuel s c k B Hch O Hk Hfuel.
  apply (fam_no_panic (zvfam_rs fuel) cap (par, pin) s c k (conj B (conj Hch (conj O (conj Hk Hfuel))))).
Qed.

(** exactness: the operation fails if and only if it needs more nodes than the
    capacity allows; otherwise it returns the correct result *)
Theorem zv_exact : forall cap par pin fuel s c k,
  ZbddOK s -> ZChainOK s -> ZCacheOKB s c -> zvcall_ok s k -> ZFUEL s <= fuel ->
  exists su cu ru, RUNU fuel s c k = Some (su, cu, ru) /\ zvcall_spec s k su ru /\
    zexact C cget cap s (RUNC cap par pin fuel s c k) su cu ru.
Proof.
  intros cap par pin fuel s c k B Hch O Hk Hfuel.
  exact (fam_exact (zvfam_sim fuel) (zvfam_rs fuel) (zvfam_u_ok fuel) (zvfam_failed fuel) cap (par, pin) s c k
           (conj B (conj Hch (conj O (conj Hk Hfuel))))).
Qed.

(** failing or not does not depend on the recursors *)
Theorem zv_outcome_recursor_indep : forall cap par par' pin pin' fuel s c k,
  ZbddOK s -> ZChainOK s -> ZCacheOKB s c -> zvcall_ok s k -> ZFUEL s <= fuel ->
  gres_code (RUNC cap par pin fuel s c k) = gres_code (RUNC cap par' pin' fuel s c k).
Proof.
  intros cap par par' pin pin' fuel s c k B Hch O Hk Hfuel.
  apply (fam_recursor_indep (zvfam_sim fuel) (zvfam_rs fuel) (zvfam_u_ok fuel) (zvfam_failed fuel) cap (par, pin) (par', pin') s c k
           (conj B (conj Hch (conj O (conj Hk Hfuel))))).
Qed.

(** ** What the general statements say for each family (spelled out) *)

(** subset0 / subset1 / change: [f_sub] of the operand's family, or the store is full *)
Theorem zv_exact_subset : forall cap par op fuel s c f var,
  ZbddOK s -> ZChainOK s -> ZCacheOKB s c -> ref_ok s f -> var < length (s_v2l s) -> ZFUEL s <= fuel ->
  exists su cu ru, zsubset_top C cget cadd fuel s c op f var = Some (su, cu, ru) /\
    (exists vl F R, nth_error (s_v2l s) var = Some vl /\
       fam_of s f = Some F /\ fam_of su ru = Some R /\ feq R (f_sub op vl F)) /\
    zexact C cget cap s (zsubset_top_c C cget cadd cap par fuel s c op f var) su cu ru.
Proof.
  intros cap par op fuel s c f var B Hch O Of Hv Hfuel.
  exact (zv_exact cap par (fun _ => false) fuel s c (ZVSubset op f var) B Hch O (conj Of Hv) Hfuel).
Qed.

(** restrict: the cofactor w.r.t. the cube, or the store is full *)
Theorem zv_exact_restrict : forall cap par fuel s c f vars lits,
  ZbddOK s -> ZChainOK s -> ZCacheOKB s c -> ref_ok s f ->
  zcube_lits (S (nlevels s)) s vars 0 = Some lits -> ZFUEL s <= fuel ->
  exists su cu ru, zrestrict_edge C cget cadd fuel s c f vars = Some (su, cu, ru) /\
    (forall a, zbfun_of su ru a = restrict_s (lits_vars s lits) (zbfun_of s f) a) /\
    zexact C cget cap s (zrestrict_edge_c C cget cadd cap par fuel s c f vars) su cu ru.
Proof.
  intros cap par fuel s c f vars lits B Hch O Of El Hfuel.
  destruct (zv_exact cap par (fun _ => false) fuel s c (ZVRestrict f vars) B Hch O
              (conj Of (ex_intro _ lits El)) Hfuel) as (su & cu & ru & Eu & Sp & X).
  exists su, cu, ru. split; [exact Eu|]. split; [apply (Sp lits El) | exact X].
Qed.

(** var_edge: the variable, or the store is full (with the don't-care nodes
    created so far left behind) *)
Theorem zv_exact_var : forall cap s c var,
  ZbddOK s -> ZChainOK s -> ZCacheOKB s c -> var < length (s_v2l s) ->
  exists L su ru, nth_error (s_v2l s) var = Some L /\ zvar s var = Some (su, ru) /\
    (forall c0, choice_ok s c0 -> zview_of su ru c0 = Some (Nat.eqb (c0 L) 0)) /\
    zexact C cget cap s (zvar_c C cap s c var) su c ru.
Proof.
  intros cap s c var B Hch O Hv.
  destruct (zv_exact cap (fun _ => false) (fun _ => false) (ZFUEL s) s c (ZVVar var) B Hch O Hv (le_n _))
    as (su & cu & ru & Eu & (L & Ev & Sp) & X).
  simpl in Eu, X. unfold zvar_u in Eu. destruct (zvar s var) as [[s1 r1]|]; [|discriminate].
  inversion Eu; subst s1 cu r1.
  exists L, su, ru. split; [exact Ev|]. split; [reflexivity|]. split; [exact Sp | exact X].
Qed.

(** not_var_edge *)
Theorem zv_exact_notvar : forall cap pin fuel s c var,
  ZbddOK s -> ZChainOK s -> ZCacheOKB s c -> var < length (s_v2l s) -> ZFUEL s <= fuel ->
  exists L su cu ru, nth_error (s_v2l s) var = Some L /\
    znot_var gt C cget cadd fuel s c var = Some (su, cu, ru) /\
    (forall c0, choice_ok s c0 -> zview_of su ru c0 = Some (negb (Nat.eqb (c0 L) 0))) /\
    zexact C cget cap s (znot_var_c gt C cget cadd cap pin fuel s c var) su cu ru.
Proof.
  intros cap pin fuel s c var B Hch O Hv Hfuel.
  destruct (zv_exact cap (fun _ => false) pin fuel s c (ZVNotVar var) B Hch O Hv Hfuel)
    as (su & cu & ru & Eu & (L & Ev & Sp) & X).
  exists L, su, cu, ru. auto.
Qed.

End Top.

(** the checker of the call hypotheses decides them *)
Theorem zv_call_ok_decided : forall s k, zvcall_ok_b s k = true <-> zvcall_ok s k.
Proof. exact zvcall_ok_b_spec. Qed.

(** the no-cache instances the correspondence run evaluates are instances of [zvrun_c] *)
Theorem zv_nc_instances : forall cap p s,
  (forall op f var, zv_subset_nc cap p s op f var = zv_run_nc cap p s (ZVSubset op f var)) /\
  (forall f vars, zv_restrict_nc cap p s f vars = zv_run_nc cap p s (ZVRestrict f vars)) /\
  (forall var, zv_var_nc cap s var = zv_run_nc cap p s (ZVVar var)) /\
  (forall var, zv_notvar_nc cap p s var = zv_run_nc cap p s (ZVNotVar var)).
Proof. intros. repeat split. Qed.
