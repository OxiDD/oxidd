(** C08, part A — proofs about Mgr/SortOrder.v *)
From Coq Require Import List Arith ZArith Bool Lia Permutation.
From OxiVerif Require Import Base.ListFacts Mgr.SortOrder.
Import ListNotations.

(** * finite sums over [0, n) *)

Definition b2n (b : bool) : nat := if b then 1 else 0.

Fixpoint sumn (n : nat) (f : nat -> nat) : nat :=
  match n with O => 0 | S k => sumn k f + f k end.

Lemma sumn_ext n f g : (forall i, i < n -> f i = g i) -> sumn n f = sumn n g.
Proof.
  induction n as [|n IH]; intros H; simpl; [reflexivity|].
  rewrite IH, H; auto.
Qed.

Lemma sumn_le n f g : (forall i, i < n -> f i <= g i) -> sumn n f <= sumn n g.
Proof.
  induction n as [|n IH]; intros H; simpl; [lia|].
  pose proof (H n ltac:(lia)). assert (sumn n f <= sumn n g) by (apply IH; auto). lia.
Qed.

Lemma sumn_lt n f g k :
  k < n -> (forall i, i < n -> f i <= g i) -> f k < g k -> sumn n f < sumn n g.
Proof.
  induction n as [|n IH]; intros Hk H Hlt; [lia|]. simpl.
  assert (Hle : sumn n f <= sumn n g) by (apply sumn_le; auto).
  pose proof (H n ltac:(lia)).
  destruct (Nat.eq_dec k n) as [->|Hne]; [lia|].
  assert (sumn n f < sumn n g) by (apply IH; auto; lia). lia.
Qed.

Lemma sumn_add n f g : sumn n (fun i => f i + g i) = sumn n f + sumn n g.
Proof. induction n as [|n IH]; simpl; [reflexivity|]. rewrite IH. lia. Qed.

Lemma sumn_zero n f : (forall i, i < n -> f i = 0) -> sumn n f = 0.
Proof.
  induction n as [|n IH]; intros H; simpl; [reflexivity|]. rewrite IH, H; auto.
Qed.

Lemma sumn_swap n m (f : nat -> nat -> nat) :
  sumn n (fun i => sumn m (fun j => f i j)) = sumn m (fun j => sumn n (fun i => f i j)).
Proof.
  induction n as [|n IH]; simpl.
  - symmetry. apply sumn_zero. reflexivity.
  - rewrite IH, <- sumn_add. reflexivity.
Qed.

Lemma sumn_split n k f :
  k < n -> sumn n f = f k + sumn n (fun x => if x =? k then 0 else f x).
Proof.
  induction n as [|n IH]; intros Hk; [lia|]. simpl.
  destruct (Nat.eq_dec k n) as [->|Hne].
  - rewrite Nat.eqb_refl. rewrite (sumn_ext n (fun x => if x =? n then 0 else f x) f); [lia|].
    intros i Hi. destruct (Nat.eqb_spec i n); [lia|reflexivity].
  - rewrite IH by lia. destruct (Nat.eqb_spec n k); lia.
Qed.

Lemma sumn_single n k f :
  k < n -> (forall i, i < n -> i <> k -> f i = 0) -> sumn n f = f k.
Proof.
  intros Hk H. rewrite (sumn_split n k f Hk), sumn_zero; [lia|].
  intros i Hi. destruct (Nat.eqb_spec i k); auto.
Qed.

Lemma sumn_b2n_le n P : sumn n (fun i => b2n (P i)) <= n.
Proof. induction n as [|n IH]; simpl; [lia|]. destruct (P n); simpl; lia. Qed.

Lemma sumn_S_first n f : sumn (S n) f = f 0 + sumn n (fun i => f (S i)).
Proof.
  induction n as [|n IH]; [simpl; lia|].
  change (sumn (S (S n)) f) with (sumn (S n) f + f (S n)). rewrite IH. simpl. lia.
Qed.

Lemma sumn_restrict n j f : j <= n -> sumn n (fun k => b2n (k <? j) * f k) = sumn j f.
Proof.
  induction n as [|n IH]; intros Hj.
  - assert (j = 0) by lia. subst. reflexivity.
  - simpl. destruct (Nat.eq_dec j (S n)) as [->|Hne].
    + simpl. replace (n <? S n) with true by (symmetry; apply Nat.ltb_lt; lia). simpl.
      f_equal; [|lia]. apply sumn_ext. intros i Hi.
      replace (i <? S n) with true by (symmetry; apply Nat.ltb_lt; lia). simpl. lia.
    + rewrite IH by lia. replace (n <? j) with false by (symmetry; apply Nat.ltb_ge; lia).
      simpl. lia.
Qed.

Lemma sumn_ltb m g : g <= m -> sumn m (fun i => b2n (i <? g)) = g.
Proof.
  intros H. rewrite (sumn_ext m _ (fun i => b2n (i <? g) * 1)) by (intros; lia).
  rewrite sumn_restrict by assumption.
  clear H. induction g as [|g IH]; simpl; lia.
Qed.

Lemma sumn_all m P : (forall i, i < m -> P i = true) -> sumn m (fun i => b2n (P i)) = m.
Proof.
  induction m as [|m IH]; intros H; simpl; [reflexivity|].
  rewrite IH, H by auto. simpl. lia.
Qed.

(** a strictly increasing sequence crosses a threshold once *)
Lemma incr_threshold m (w : nat -> nat) x :
  (forall i j, i < j < m -> w i < w j) ->
  forall i, i < m -> (w i <? x) = (i <? sumn m (fun k => b2n (w k <? x))).
Proof.
  induction m as [|m IH]; intros Hw i Hi; [lia|]. simpl.
  destruct (Nat.ltb_spec (w m) x) as [Hlt|Hge]; simpl.
  - rewrite sumn_all.
    + replace (i <? m + 1) with true by (symmetry; apply Nat.ltb_lt; lia).
      apply Nat.ltb_lt. destruct (Nat.eq_dec i m) as [->|]; [assumption|].
      pose proof (Hw i m ltac:(lia)). lia.
    + intros k Hk. apply Nat.ltb_lt. pose proof (Hw k m ltac:(lia)). lia.
  - rewrite Nat.add_0_r. destruct (Nat.eq_dec i m) as [->|Hne].
    + pose proof (sumn_b2n_le m (fun k => w k <? x)).
      replace (m <? _) with false by (symmetry; apply Nat.ltb_ge; assumption).
      apply Nat.ltb_ge. assumption.
    + apply IH; [|lia]. intros a b Hab. apply Hw. lia.
Qed.
(** * list helpers *)

Lemma lset_length {A} (l : list A) i x : length (lset l i x) = length l.
Proof. revert i; induction l as [|a r IH]; intros [|i]; simpl; auto. Qed.

Lemma nth_lset {A} (l : list A) i j x d :
  nth j (lset l i x) d = if (j =? i) && (i <? length l) then x else nth j l d.
Proof.
  revert i j; induction l as [|a r IH]; intros [|i] [|j]; simpl; auto.
  - destruct (j =? i); reflexivity.
  - rewrite IH. reflexivity.
Qed.

Lemma nth_lset_same {A} (l : list A) i x d : i < length l -> nth i (lset l i x) d = x.
Proof.
  intros H. rewrite nth_lset, Nat.eqb_refl. apply Nat.ltb_lt in H. rewrite H. reflexivity.
Qed.

Lemma nth_lset_other {A} (l : list A) i j x d : j <> i -> nth j (lset l i x) d = nth j l d.
Proof. intros H. rewrite nth_lset. apply Nat.eqb_neq in H. rewrite H. reflexivity. Qed.

Lemma nth_map_seq {A} (f : nat -> A) a n i d : i < n -> nth i (map f (seq a n)) d = f (a + i).
Proof.
  intros H. rewrite (nth_indep _ d (f 0)) by (rewrite map_length, seq_length; assumption).
  rewrite (map_nth f (seq a n) 0 i), seq_nth by assumption. reflexivity.
Qed.

(** * position of a level in the request *)

Fixpoint index_of (x : nat) (l : list nat) : option nat :=
  match l with
  | [] => None
  | y :: r => if x =? y then Some 0 else option_map S (index_of x r)
  end.

Lemma index_of_nth x l i : index_of x l = Some i -> nth_error l i = Some x.
Proof.
  revert i; induction l as [|y r IH]; intros i; simpl; [discriminate|].
  destruct (Nat.eqb_spec x y) as [->|Hne].
  - intros [= <-]. reflexivity.
  - destruct (index_of x r) as [k|]; simpl; [|discriminate].
    intros [= <-]. simpl. auto.
Qed.

Lemma index_of_none x l : index_of x l = None <-> ~ In x l.
Proof.
  induction l as [|y r IH]; simpl; [tauto|].
  destruct (Nat.eqb_spec x y) as [->|Hne].
  - split; [discriminate|]. intros H. exfalso. auto.
  - destruct (index_of x r) as [k|]; simpl.
    + split; [discriminate|]. intros H. exfalso. apply H. right.
      destruct (in_dec Nat.eq_dec x r) as [|Hn]; [assumption|]. apply IH in Hn. discriminate.
    + split; [|reflexivity]. intros _ [H|H]; [congruence|]. apply IH in H; auto.
Qed.

Lemma nth_index_of x l i : NoDup l -> nth_error l i = Some x -> index_of x l = Some i.
Proof.
  revert i; induction l as [|y r IH]; intros [|i] Hnd H; simpl in *; try discriminate.
  - injection H as ->. rewrite Nat.eqb_refl. reflexivity.
  - inversion Hnd as [|? ? Hni Hnd']; subst.
    destruct (Nat.eqb_spec x y) as [->|Hne].
    + exfalso. apply Hni. eapply nth_error_In; eauto.
    + rewrite (IH i); auto.
Qed.

Lemma index_of_lt x l i : index_of x l = Some i -> i < length l.
Proof. intros H. apply index_of_nth in H. apply nth_error_Some. congruence. Qed.

(** * the first loop of [sort_order] *)

Lemma mark_length tgt order k : length (mark tgt order k) = length tgt.
Proof.
  revert tgt k; induction order as [|a r IH]; intros; simpl; [reflexivity|].
  rewrite IH, lset_length. reflexivity.
Qed.

Lemma mark_nth tgt order k l :
  NoDup order -> Forall (fun x => x < length tgt) order ->
  nth l (mark tgt order k) None =
  match index_of l order with Some i => Some (k + i) | None => nth l tgt None end.
Proof.
  revert tgt k; induction order as [|a r IH]; intros tgt k Hnd Hr; simpl; [reflexivity|].
  inversion Hnd as [|? ? Hni Hnd']; subst. inversion Hr as [|? ? Ha Hr']; subst.
  rewrite IH by (try rewrite lset_length; assumption).
  destruct (Nat.eqb_spec l a) as [->|Hne].
  - apply index_of_none in Hni. rewrite Hni. rewrite nth_lset_same by assumption.
    f_equal. lia.
  - destruct (index_of l r) as [i|]; simpl; [f_equal; lia|].
    apply nth_lset_other. assumption.
Qed.

Lemma mark_spec n order :
  NoDup order -> Forall (fun x => x < n) order ->
  mark (repeat None n) order 0 = map (fun l => index_of l order) (seq 0 n).
Proof.
  intros Hnd Hr. apply (nth_ext _ _ None None).
  - rewrite mark_length, repeat_length, map_length, seq_length. reflexivity.
  - rewrite mark_length, repeat_length. intros i Hi.
    rewrite mark_nth, nth_map_seq; auto.
    + simpl. destruct (index_of i order); [reflexivity|]. apply nth_repeat.
    + rewrite repeat_length. assumption.
Qed.

(** * the segment-tree interface *)

Lemma add_split_length t i a b : length (add_split t i a b) = length t.
Proof. revert i; induction t as [|x r IH]; intros [|i]; simpl; auto. Qed.

Lemma add_split_nth t i a b g :
  g < length t ->
  nth g (add_split t i a b) 0%Z = (nth g t 0 + if (g <? i)%nat then a else b)%Z.
Proof.
  revert i g; induction t as [|x r IH]; intros i g Hg; simpl in Hg; [lia|].
  destruct i as [|i], g as [|g]; simpl; try reflexivity.
  - rewrite IH by lia. reflexivity.
  - rewrite IH by lia. reflexivity.
Qed.

Lemma min_index_aux_spec l : forall i best besti r,
  r = min_index_aux l i best besti ->
  besti < i ->
  (r = besti /\ (forall g, g < length l -> (best <= nth g l 0)%Z))
  \/ (exists g, r = i + g /\ g < length l /\ (nth g l 0 < best)%Z
        /\ (forall g', g' < length l -> (nth g l 0 <= nth g' l 0)%Z)
        /\ (forall g', g' < g -> (nth g l 0 < nth g' l 0)%Z)).
Proof.
  induction l as [|x l IH]; intros i best besti r Hr Hb; simpl in Hr.
  - left. split; [assumption|]. simpl. intros; lia.
  - destruct (Z.ltb_spec x best) as [Hlt|Hge].
    + destruct (IH (S i) x i r Hr ltac:(lia)) as [[-> Hall]|(g & -> & Hg & Hlt' & Hmin & Hfirst)].
      * right. exists 0. simpl. repeat split; try lia.
        intros [|g'] Hg'; [lia|]. apply Hall. lia.
      * right. exists (S g). simpl. repeat split; try lia.
        -- intros [|g'] Hg'; [lia|]. apply Hmin. lia.
        -- intros [|g'] Hg'; [lia|]. apply Hfirst. lia.
    + destruct (IH (S i) best besti r Hr ltac:(lia)) as [[-> Hall]|(g & -> & Hg & Hlt' & Hmin & Hfirst)].
      * left. split; [reflexivity|]. intros [|g'] Hg'; simpl; [lia|]. apply Hall. simpl in Hg'. lia.
      * right. exists (S g). simpl. repeat split; try lia.
        -- intros [|g'] Hg'; [lia|]. apply Hmin. lia.
        -- intros [|g'] Hg'; [lia|]. apply Hfirst. lia.
Qed.

Lemma min_index_spec t :
  t <> [] ->
  let r := min_index t in
  r < length t
  /\ (forall g, g < length t -> (nth r t 0 <= nth g t 0)%Z)
  /\ (forall g, g < r -> (nth r t 0 < nth g t 0)%Z).
Proof.
  destruct t as [|x l]; [congruence|]. intros _. simpl.
  destruct (min_index_aux_spec l 1 x 0 _ eq_refl ltac:(lia))
    as [[-> Hall]|(g & -> & Hg & Hlt & Hmin & Hfirst)].
  - repeat split; try lia. intros [|g] Hg; [lia|]. apply Hall. lia.
  - simpl. repeat split; try lia.
    + intros [|g'] Hg'; [lia|]. apply Hmin. lia.
    + intros [|g'] Hg'; [lia|]. apply Hfirst. lia.
Qed.
(** * the second loop: closed form of the tree contents *)

Fixpoint sumz (n : nat) (f : nat -> Z) : Z :=
  match n with O => 0%Z | S k => (sumz k f + f k)%Z end.

(** position indicator of a mentioned level *)
Definition ind (order : list nat) (l : nat) : option nat := index_of l order.

(** contribution of level [k] to the tree entry of gap [g]:
    [add_split(i + 1, 1, -1)] for a mentioned level with indicator [i] *)
Definition delta (order : list nat) (k g : nat) : Z :=
  match ind order k with
  | Some i => if g <=? i then 1%Z else (-1)%Z
  | None => 0%Z
  end.

(** entry [g] of the tree when the loop reaches level [j] *)
Definition segv (order : list nat) (j g : nat) : Z :=
  (Z.of_nat g + sumz j (fun k => delta order k g))%Z.

Definition segl (order : list nat) (j : nat) : seg :=
  map (segv order j) (seq 0 (S (length order))).

(** position indicator of every level after the second loop *)
Definition pind (order : list nat) (j : nat) : nat :=
  match ind order j with
  | Some i => i
  | None => min_index (segl order j)
  end.

Lemma segl_length order j : length (segl order j) = S (length order).
Proof. unfold segl. rewrite map_length, seq_length. reflexivity. Qed.

Lemma segl_nth order j g : g < S (length order) -> nth g (segl order j) 0%Z = segv order j g.
Proof. intros H. unfold segl. rewrite nth_map_seq by assumption. reflexivity. Qed.

Lemma seg_new_segl order : seg_new (S (length order)) = segl order 0.
Proof.
  unfold seg_new, segl. apply map_ext. intros g. unfold segv. simpl. lia.
Qed.

Lemma segl_step_some order j i :
  ind order j = Some i -> add_split (segl order j) (S i) 1 (-1) = segl order (S j).
Proof.
  intros E. apply (nth_ext _ _ 0%Z 0%Z).
  - rewrite add_split_length, !segl_length. reflexivity.
  - rewrite add_split_length, segl_length. intros g Hg.
    rewrite add_split_nth by (rewrite segl_length; assumption).
    rewrite !segl_nth by assumption. unfold segv. simpl sumz.
    unfold delta at 3. rewrite E.
    change (g <? S i) with (g <=? i). destruct (g <=? i); lia.
Qed.

Lemma segl_step_none order j : ind order j = None -> segl order (S j) = segl order j.
Proof.
  intros E. unfold segl. apply map_ext. intros g. unfold segv. simpl sumz.
  unfold delta at 2. rewrite E. lia.
Qed.

Lemma seg_pass_spec order cnt : forall j,
  seg_pass (segl order j) (map (ind order) (seq j cnt)) = map (pind order) (seq j cnt).
Proof.
  induction cnt as [|cnt IH]; intros j; [reflexivity|].
  cbn [seq map]. unfold pind at 1. destruct (ind order j) as [i|] eqn:E; cbn [seg_pass].
  - rewrite (segl_step_some _ _ _ E), IH. reflexivity.
  - f_equal. rewrite <- (segl_step_none _ _ E). apply IH.
Qed.

Lemma indicators_spec n order :
  NoDup order -> Forall (fun x => x < n) order ->
  indicators n order = map (pind order) (seq 0 n).
Proof.
  intros Hnd Hr. unfold indicators. rewrite mark_spec by assumption.
  rewrite seg_new_segl. apply seg_pass_spec.
Qed.

Lemma ind_lt order l i : ind order l = Some i -> i < length order.
Proof. apply index_of_lt. Qed.

Lemma pind_le order l : pind order l <= length order.
Proof.
  unfold pind. destruct (ind order l) as [i|] eqn:E.
  - apply ind_lt in E. lia.
  - pose proof (min_index_spec (segl order l)) as H. rewrite segl_length in H.
    destruct H as [H _]; [|lia]. unfold segl. simpl. discriminate.
Qed.

(** * the counting pass = stable rank *)

Fixpoint occ (v : nat) (l : list nat) : nat :=
  match l with
  | [] => 0
  | y :: r => b2n (y =? v) + occ v r
  end.

Lemma count_pass_length cs l : length (count_pass cs l) = length cs.
Proof.
  revert cs; induction l as [|i r IH]; intros; simpl; [reflexivity|].
  rewrite IH, lset_length. reflexivity.
Qed.

Lemma count_pass_nth cs l v :
  Forall (fun i => i < length cs) l ->
  nth v (count_pass cs l) 0 = nth v cs 0 + occ v l.
Proof.
  revert cs; induction l as [|i r IH]; intros cs H; simpl; [lia|].
  inversion H as [|? ? Hi Hr]; subst.
  rewrite IH by (rewrite lset_length; assumption).
  rewrite nth_lset. apply Nat.ltb_lt in Hi. rewrite Hi, andb_true_r.
  rewrite (Nat.eqb_sym i v).
  destruct (Nat.eqb_spec v i) as [->|]; simpl; lia.
Qed.

Lemma accumulate_length cs s : length (accumulate cs s) = length cs.
Proof. revert s; induction cs as [|c r IH]; intros; simpl; auto. Qed.

Lemma accumulate_nth cs : forall s v,
  v < length cs -> nth v (accumulate cs s) 0 = s + sumn v (fun w => nth w cs 0).
Proof.
  induction cs as [|c r IH]; intros s v Hv; simpl in Hv; [lia|].
  destruct v as [|v]; simpl accumulate; [simpl; lia|].
  cbn [nth]. rewrite IH by lia. rewrite sumn_S_first. cbn [nth]. lia.
Qed.

Lemma assign_length cs l : length (assign cs l) = length l.
Proof. revert cs; induction l as [|i r IH]; intros; simpl; auto. Qed.

Lemma assign_nth l : forall cs k,
  Forall (fun i => i < length cs) l -> k < length l ->
  nth k (assign cs l) 0 = nth (nth k l 0) cs 0 + occ (nth k l 0) (firstn k l).
Proof.
  induction l as [|i r IH]; intros cs k H Hk; simpl in Hk; [lia|].
  inversion H as [|? ? Hi Hr]; subst.
  destruct k as [|k]; simpl; [lia|].
  rewrite IH by (try rewrite lset_length; auto; lia).
  rewrite nth_lset. apply Nat.ltb_lt in Hi. rewrite Hi, andb_true_r.
  rewrite (Nat.eqb_sym (nth k r 0) i).
  destruct (Nat.eqb_spec i (nth k r 0)) as [->|]; simpl; lia.
Qed.

Lemma occ_map_seq (p : nat -> nat) v k : forall a,
  occ v (map p (seq a k)) = sumn k (fun i => b2n (p (a + i) =? v)).
Proof.
  induction k as [|k IH]; intros a; [reflexivity|].
  rewrite sumn_S_first. simpl map. simpl occ. rewrite IH, Nat.add_0_r. f_equal.
  apply sumn_ext. intros i _. replace (S a + i) with (a + S i) by lia. reflexivity.
Qed.

Lemma sumn_eqb_ltb x v : sumn v (fun w => b2n (x =? w)) = b2n (x <? v).
Proof.
  destruct (Nat.ltb_spec x v) as [H|H].
  - rewrite (sumn_single v x) by (auto; intros i _ Hi; apply Nat.eqb_neq in Hi;
      rewrite Nat.eqb_sym, Hi; reflexivity).
    rewrite Nat.eqb_refl. reflexivity.
  - apply sumn_zero. intros i Hi. replace (x =? i) with false; [reflexivity|].
    symmetry. apply Nat.eqb_neq. lia.
Qed.

Lemma firstn_seq_le k : forall a n, k <= n -> firstn k (seq a n) = seq a k.
Proof.
  induction k as [|k IH]; intros a n H; [reflexivity|].
  destruct n as [|n]; [lia|]. simpl. rewrite IH by lia. reflexivity.
Qed.

(** stable lexicographic comparison of two levels by (indicator, current level) *)
Definition lexltb (p : nat -> nat) (a b : nat) : bool :=
  (p a <? p b) || ((p a =? p b) && (a <? b)).

(** the unique position a stable counting sort assigns *)
Definition rank (p : nat -> nat) (n l : nat) : nat := sumn n (fun l' => b2n (lexltb p l' l)).

Lemma rank_spec (p : nat -> nat) n K :
  (forall l, l < n -> p l < K) ->
  let P := map p (seq 0 n) in
  assign (accumulate (count_pass (repeat 0 K) P) 0) P = map (rank p n) (seq 0 n).
Proof.
  intros Hp P.
  assert (HF : Forall (fun i => i < K) P).
  { apply Forall_forall. intros x Hx. apply in_map_iff in Hx. destruct Hx as (l & <- & Hl).
    apply in_seq in Hl. apply Hp. lia. }
  apply (nth_ext _ _ 0 0).
  - unfold P. rewrite assign_length, !map_length. reflexivity.
  - rewrite assign_length. unfold P at 1. rewrite map_length, seq_length. intros l Hl.
    rewrite assign_nth.
    2:{ rewrite accumulate_length, count_pass_length, repeat_length. assumption. }
    2:{ unfold P. rewrite map_length, seq_length. assumption. }
    rewrite (nth_map_seq (rank p n)) by assumption. simpl.
    assert (HPl : nth l P 0 = p l).
    { unfold P. rewrite nth_map_seq by assumption. reflexivity. }
    rewrite HPl.
    rewrite accumulate_nth.
    2:{ rewrite count_pass_length, repeat_length. apply Hp. assumption. }
    rewrite (sumn_ext (p l) _ (fun w => sumn n (fun i => b2n (p i =? w)))).
    2:{ intros w Hw. rewrite count_pass_nth by (rewrite repeat_length; assumption).
        rewrite nth_repeat. unfold P. rewrite occ_map_seq. reflexivity. }
    rewrite sumn_swap.
    rewrite (sumn_ext n _ (fun i => b2n (p i <? p l))) by (intros; apply sumn_eqb_ltb).
    unfold P. rewrite firstn_map, firstn_seq_le by lia. rewrite occ_map_seq.
    rewrite <- (sumn_restrict n l) by lia.
    unfold rank. simpl. rewrite <- sumn_add. apply sumn_ext. intros i Hi.
    unfold lexltb.
    destruct (Nat.ltb_spec (p i) (p l)), (Nat.eqb_spec (p i) (p l)), (i <? l); simpl; lia.
Qed.
Lemma lexltb_irrefl p a : lexltb p a a = false.
Proof. unfold lexltb. rewrite !Nat.ltb_irrefl, andb_false_r. reflexivity. Qed.

Lemma lexltb_iff p a b :
  lexltb p a b = true <-> p a < p b \/ (p a = p b /\ a < b).
Proof.
  unfold lexltb. rewrite orb_true_iff, andb_true_iff, !Nat.ltb_lt, Nat.eqb_eq. tauto.
Qed.

Lemma lexltb_trans p a b c : lexltb p a b = true -> lexltb p b c = true -> lexltb p a c = true.
Proof. rewrite !lexltb_iff. lia. Qed.

Lemma lexltb_total p a b : a <> b -> lexltb p a b = true \/ lexltb p b a = true.
Proof. rewrite !lexltb_iff. lia. Qed.

Lemma rank_lt p n a b : a < n -> lexltb p a b = true -> rank p n a < rank p n b.
Proof.
  intros Ha H. unfold rank. apply (sumn_lt n _ _ a); [assumption| |].
  - intros i _. destruct (lexltb p i a) eqn:E; simpl; [|lia].
    rewrite (lexltb_trans _ _ _ _ E H). simpl. lia.
  - rewrite lexltb_irrefl, H. simpl. lia.
Qed.

Lemma rank_iso p n a b :
  a < n -> b < n -> (rank p n a < rank p n b <-> lexltb p a b = true).
Proof.
  intros Ha Hb. split; [|apply rank_lt; assumption].
  intros H. destruct (Nat.eq_dec a b) as [->|Hne]; [lia|].
  destruct (lexltb_total p a b Hne) as [|H']; [assumption|].
  apply (rank_lt p n) in H'; [lia|assumption].
Qed.

Lemma rank_bound p n a : a < n -> rank p n a < n.
Proof.
  intros Ha. unfold rank.
  assert (H : sumn n (fun l' => b2n (lexltb p l' a)) < sumn n (fun _ => 1)).
  { apply (sumn_lt n _ _ a); [assumption| |].
    - intros i _. destruct (lexltb p i a); simpl; lia.
    - rewrite lexltb_irrefl. simpl. lia. }
  pose proof (sumn_all n (fun _ => true) ltac:(reflexivity)) as E. simpl in E.
  rewrite E in H. exact H.
Qed.

(** * [sort_order]: what the result looks like *)

Definition valid_order (n : nat) (order : list nat) : Prop :=
  NoDup order /\ Forall (fun x => x < n) order.

Lemma ind_some_iff order l i :
  NoDup order -> (ind order l = Some i <-> nth_error order i = Some l).
Proof.
  intros Hnd. unfold ind. split; [apply index_of_nth|apply nth_index_of; assumption].
Qed.

Lemma total_order_ind n order l :
  valid_order n order -> length order = n -> l < n -> exists i, ind order l = Some i.
Proof.
  intros [Hnd Hr] Hlen Hl.
  assert (Hin : In l order).
  { apply (NoDup_length_incl Hnd (l' := seq 0 n)).
    - rewrite seq_length. lia.
    - intros x Hx. rewrite Forall_forall in Hr. apply in_seq. specialize (Hr x Hx). lia.
    - apply in_seq. lia. }
  unfold ind. destruct (index_of l order) as [i|] eqn:E; [eauto|].
  apply index_of_none in E. contradiction.
Qed.

Lemma pind_inj_mentioned order a b i :
  NoDup order -> ind order a = Some i -> pind order b = i -> ind order b <> None -> a = b.
Proof.
  intros Hnd Ha Hb Hn. unfold pind in Hb. destruct (ind order b) as [k|] eqn:E; [|congruence].
  subst k. apply ind_some_iff in Ha, E; try assumption. congruence.
Qed.

(** closed form of the result *)
Definition pos (n : nat) (order : list nat) (l : nat) : nat :=
  if length order =? n then pind order l else rank (pind order) n l.

Lemma sort_order_closed n order :
  valid_order n order -> sort_order n order = map (pos n order) (seq 0 n).
Proof.
  intros Hv. pose proof Hv as [Hnd Hr]. unfold sort_order, pos.
  rewrite mark_spec by assumption.
  destruct (Nat.eqb_spec (length order) n) as [Hlen|Hlen].
  - rewrite map_map. apply map_ext_in. intros l Hl. apply in_seq in Hl.
    destruct (total_order_ind n order l Hv Hlen ltac:(lia)) as [i E].
    unfold pind. fold (ind order l). rewrite E. reflexivity.
  - change (map (fun l => index_of l order) (seq 0 n)) with (map (ind order) (seq 0 n)).
    rewrite seg_new_segl, seg_pass_spec.
    apply (rank_spec (pind order) n (S (length order))).
    intros l _. pose proof (pind_le order l). lia.
Qed.

Lemma sort_order_length n order : valid_order n order -> length (sort_order n order) = n.
Proof. intros H. rewrite sort_order_closed, map_length, seq_length; auto. Qed.

Lemma sort_order_nth n order l :
  valid_order n order -> l < n -> nth l (sort_order n order) 0 = pos n order l.
Proof. intros H Hl. rewrite sort_order_closed, nth_map_seq; auto. Qed.

Lemma pos_iso n order a b :
  valid_order n order -> a < n -> b < n ->
  (pos n order a < pos n order b <-> lexltb (pind order) a b = true).
Proof.
  intros Hv Ha Hb. unfold pos. destruct (Nat.eqb_spec (length order) n) as [Hlen|Hlen].
  - rewrite lexltb_iff. split; [tauto|]. intros [H|[H1 H2]]; [assumption|]. exfalso.
    destruct (total_order_ind n order a Hv Hlen Ha) as [i Ea].
    destruct (total_order_ind n order b Hv Hlen Hb) as [k Eb].
    assert (a = b); [|lia].
    apply (pind_inj_mentioned order a b i); try apply Hv; try congruence.
    rewrite <- H1. unfold pind. rewrite Ea. reflexivity.
  - apply rank_iso; assumption.
Qed.

Lemma pos_bound n order a : valid_order n order -> a < n -> pos n order a < n.
Proof.
  intros Hv Ha. unfold pos. destruct (Nat.eqb_spec (length order) n) as [Hlen|Hlen].
  - destruct (total_order_ind n order a Hv Hlen Ha) as [i E].
    unfold pind. rewrite E. apply ind_lt in E. lia.
  - apply rank_bound. assumption.
Qed.

Lemma pos_inj n order a b :
  valid_order n order -> a < n -> b < n -> pos n order a = pos n order b -> a = b.
Proof.
  intros Hv Ha Hb H. destruct (Nat.eq_dec a b) as [|Hne]; [assumption|]. exfalso.
  destruct (lexltb_total (pind order) a b Hne) as [L|L];
    apply (pos_iso n order) in L; auto; lia.
Qed.

(** * Theorem: the result is a permutation of [0, n) *)

Lemma NoDup_map_inj_in {A B} (f : A -> B) l :
  (forall a b, In a l -> In b l -> f a = f b -> a = b) -> NoDup l -> NoDup (map f l).
Proof.
  induction l as [|x r IH]; intros Hinj Hnd; simpl; [constructor|].
  inversion Hnd as [|? ? Hni Hnd']; subst. constructor.
  - intros Hin. apply in_map_iff in Hin. destruct Hin as (y & Hy & Hin).
    assert (y = x) by (apply Hinj; simpl; auto). subst. contradiction.
  - apply IH; [|assumption]. intros a b Ha Hb. apply Hinj; simpl; auto.
Qed.

Theorem sort_order_perm n order :
  valid_order n order -> Permutation (sort_order n order) (seq 0 n).
Proof.
  intros Hv. apply NoDup_Permutation_bis.
  - rewrite sort_order_closed by assumption.
    apply NoDup_map_inj_in; [|apply seq_NoDup].
    intros a b Ha Hb. apply in_seq in Ha, Hb. apply pos_inj; auto; lia.
  - rewrite sort_order_length, seq_length; auto.
  - intros x Hx. rewrite sort_order_closed in Hx by assumption.
    apply in_map_iff in Hx. destruct Hx as (l & <- & Hl). apply in_seq in Hl.
    apply in_seq. pose proof (pos_bound n order l Hv ltac:(lia)). lia.
Qed.

(** * Theorem: mentioned levels end up in the requested relative order *)

(** [t] (current level |-> target level) places the levels of [order] in the
    order of the list *)
Definition respects (order t : list nat) : Prop :=
  forall i j, i < j < length order ->
    nth (nth i order 0) t 0 < nth (nth j order 0) t 0.

Lemma order_nth_lt n order i : valid_order n order -> i < length order -> nth i order 0 < n.
Proof.
  intros [_ Hr] Hi. rewrite Forall_forall in Hr. apply Hr. apply nth_In. assumption.
Qed.

Lemma ind_order_nth n order i :
  valid_order n order -> i < length order -> ind order (nth i order 0) = Some i.
Proof.
  intros [Hnd _] Hi. apply ind_some_iff; [assumption|]. apply nth_error_nth'. assumption.
Qed.

Lemma pind_order_nth n order i :
  valid_order n order -> i < length order -> pind order (nth i order 0) = i.
Proof. intros Hv Hi. unfold pind. rewrite (ind_order_nth n) by assumption. reflexivity. Qed.

Theorem sort_order_respects n order :
  valid_order n order -> respects order (sort_order n order).
Proof.
  intros Hv i j Hij.
  pose proof (order_nth_lt n order i Hv ltac:(lia)) as Hi.
  pose proof (order_nth_lt n order j Hv ltac:(lia)) as Hj.
  rewrite !sort_order_nth by assumption.
  apply pos_iso; try assumption. apply lexltb_iff. left.
  rewrite !(pind_order_nth n) by (auto; lia). lia.
Qed.
(** * inversions as a double sum *)

Definition invf (n : nat) (t : nat -> nat) : nat :=
  sumn n (fun i => sumn n (fun j => b2n ((i <? j) && (t j <? t i)))).

Lemma count_lt_sum x l : count_lt x l = sumn (length l) (fun j => b2n (nth j l 0 <? x)).
Proof.
  induction l as [|y r IH]; [reflexivity|].
  cbn [length]. rewrite sumn_S_first. simpl. rewrite IH. reflexivity.
Qed.

Lemma inv_invf l : inv l = invf (length l) (fun i => nth i l 0).
Proof.
  induction l as [|x r IH]; [reflexivity|].
  cbn [length inv]. unfold invf. rewrite sumn_S_first. f_equal.
  - rewrite sumn_S_first. rewrite count_lt_sum. simpl. reflexivity.
  - rewrite IH. unfold invf. apply sumn_ext. intros i _.
    rewrite sumn_S_first. simpl. reflexivity.
Qed.

Lemma invf_ext n t t' : (forall i, i < n -> t i = t' i) -> invf n t = invf n t'.
Proof.
  intros H. unfold invf. apply sumn_ext. intros i Hi. apply sumn_ext. intros j Hj.
  rewrite !H by assumption. reflexivity.
Qed.

(** * double sums *)

Definition sumn2 (n : nat) (f : nat -> nat -> nat) : nat :=
  sumn n (fun i => sumn n (fun j => f i j)).

Lemma sumn2_ext n f g : (forall i j, i < n -> j < n -> f i j = g i j) -> sumn2 n f = sumn2 n g.
Proof. intros H. apply sumn_ext. intros i Hi. apply sumn_ext. intros j Hj. auto. Qed.

Lemma sumn2_add n f g : sumn2 n (fun i j => f i j + g i j) = sumn2 n f + sumn2 n g.
Proof.
  unfold sumn2. rewrite <- sumn_add. apply sumn_ext. intros i _. apply sumn_add.
Qed.

Lemma sumn2_swap n f : sumn2 n f = sumn2 n (fun i j => f j i).
Proof. unfold sumn2. apply sumn_swap. Qed.

Lemma sumn_mul_l n c f : sumn n (fun i => c * f i) = c * sumn n f.
Proof. induction n as [|n IH]; simpl; [lia|]. rewrite IH. lia. Qed.

(** * splitting the inversions by mentioned / unmentioned levels *)

Section Split.
Variable order : list nat.
Variable n : nat.

Definition isM (l : nat) : bool := match ind order l with Some _ => true | None => false end.
Definition mM (l : nat) : nat := b2n (isM l).
Definition mU (l : nat) : nat := b2n (negb (isM l)).

Definition G (t : nat -> nat) (a b : nat) : nat := b2n ((a <? b) && (t b <? t a)).

(** inversions between two mentioned / two unmentioned levels *)
Definition Smm (t : nat -> nat) : nat := sumn2 n (fun a b => mM a * mM b * G t a b).
Definition Suu (t : nat -> nat) : nat := sumn2 n (fun a b => mU a * mU b * G t a b).
(** inversions of level [j] with the mentioned levels *)
Definition Cmu (t : nat -> nat) (j : nat) : nat := sumn n (fun k => mM k * (G t k j + G t j k)).

Lemma invf_split t : invf n t = Smm t + Suu t + sumn n (fun j => mU j * Cmu t j).
Proof.
  change (invf n t) with (sumn2 n (G t)).
  rewrite (sumn2_ext n (G t)
    (fun a b => (mM a * mM b * G t a b + mU a * mU b * G t a b)
                + (mM a * mU b * G t a b + mU a * mM b * G t a b))).
  2:{ intros a b _ _. unfold mM, mU. destruct (isM a), (isM b); simpl; lia. }
  rewrite sumn2_add, sumn2_add. fold (Smm t) (Suu t). f_equal.
  rewrite sumn2_add. rewrite (sumn2_swap n (fun a b => mM a * mU b * G t a b)).
  rewrite <- sumn2_add. unfold sumn2. apply sumn_ext. intros j _.
  unfold Cmu. rewrite <- sumn_mul_l. apply sumn_ext. intros k _. lia.
Qed.

End Split.
(** * the cost of a gap *)

(** number of inversions between the unmentioned level [j] and the mentioned
    levels when [j] is put into gap [g], i.e. directly above the mentioned
    level with position indicator [g] (below all of them for [g = m]) *)
Definition cost (n : nat) (order : list nat) (j g : nat) : nat :=
  sumn n (fun k =>
    match ind order k with
    | Some i => b2n ((k <? j) && (g <=? i)) + b2n ((j <? k) && (i <? g))
    | None => 0
    end).

(** ** Z-valued sums *)

Lemma sumz_ext n f g : (forall i, i < n -> f i = g i) -> sumz n f = sumz n g.
Proof. induction n as [|n IH]; intros H; simpl; [reflexivity|]. rewrite IH, H; auto. Qed.

Lemma sumz_add n f g : sumz n (fun i => (f i + g i)%Z) = (sumz n f + sumz n g)%Z.
Proof. induction n as [|n IH]; simpl; [reflexivity|]. rewrite IH. lia. Qed.

Lemma sumz_sub n f g : sumz n (fun i => (f i - g i)%Z) = (sumz n f - sumz n g)%Z.
Proof. induction n as [|n IH]; simpl; [reflexivity|]. rewrite IH. lia. Qed.

Lemma sumz_of_nat n f : Z.of_nat (sumn n f) = sumz n (fun i => Z.of_nat (f i)).
Proof. induction n as [|n IH]; simpl; [reflexivity|]. rewrite <- IH. lia. Qed.

Lemma sumz_restrict n j f :
  j <= n -> sumz n (fun k => if k <? j then f k else 0%Z) = sumz j f.
Proof.
  induction n as [|n IH]; intros Hj.
  - assert (j = 0) by lia. subst. reflexivity.
  - simpl. destruct (Nat.eq_dec j (S n)) as [->|Hne].
    + simpl. replace (n <? S n) with true by (symmetry; apply Nat.ltb_lt; lia).
      f_equal. apply sumz_ext. intros i Hi.
      replace (i <? S n) with true by (symmetry; apply Nat.ltb_lt; lia). reflexivity.
    + rewrite IH by lia. replace (n <? j) with false by (symmetry; apply Nat.ltb_ge; lia). lia.
Qed.

Lemma sumz_nonneg_mono f j j' :
  (forall k, (0 <= f k)%Z) -> j <= j' -> (sumz j f <= sumz j' f)%Z.
Proof.
  intros Hf H. induction H as [|j' H IH]; [lia|]. simpl. specialize (Hf j'). lia.
Qed.

(** ** summing over the mentioned levels = summing over the request *)

Section Cost.
Variable n : nat.
Variable order : list nat.
Hypothesis Hv : valid_order n order.
Notation m := (length order).

Lemma ind_as_sum (F : nat -> nat) k :
  match ind order k with Some i => F i | None => 0 end
  = sumn m (fun i => b2n (nth i order 0 =? k) * F i).
Proof.
  destruct Hv as [Hnd Hr]. destruct (ind order k) as [i0|] eqn:E.
  - pose proof (ind_lt _ _ _ E) as Hi0.
    rewrite (sumn_single m i0); [| assumption |].
    + apply ind_some_iff in E; [|assumption]. apply (nth_error_nth _ _ 0) in E.
      rewrite E, Nat.eqb_refl. simpl. lia.
    + intros i Hi Hne. destruct (Nat.eqb_spec (nth i order 0) k) as [Hk|]; [|reflexivity].
      exfalso. apply Hne.
      assert (E' : ind order k = Some i).
      { apply ind_some_iff; [assumption|]. rewrite <- Hk. apply nth_error_nth'. assumption. }
      congruence.
  - symmetry. apply sumn_zero. intros i Hi.
    destruct (Nat.eqb_spec (nth i order 0) k) as [Hk|]; [|reflexivity]. exfalso.
    apply index_of_none in E. apply E. rewrite <- Hk. apply nth_In. assumption.
Qed.

Lemma sum_mentioned (F : nat -> nat) :
  sumn n (fun k => match ind order k with Some i => F i | None => 0 end) = sumn m F.
Proof.
  rewrite (sumn_ext n _ (fun k => sumn m (fun i => b2n (nth i order 0 =? k) * F i)))
    by (intros; apply ind_as_sum).
  rewrite sumn_swap. apply sumn_ext. intros i Hi.
  rewrite (sumn_single n (nth i order 0)).
  - rewrite Nat.eqb_refl. simpl. lia.
  - apply (order_nth_lt n); assumption.
  - intros k _ Hne. destruct (Nat.eqb_spec (nth i order 0) k); [congruence|reflexivity].
Qed.

(** the tree entry is the cost *)
Lemma cost_segv j g :
  ind order j = None -> j <= n -> g <= m ->
  Z.of_nat (cost n order j g) = segv order j g.
Proof.
  intros Ej Hj Hg.
  set (a := fun k => match ind order k with Some i => b2n ((k <? j) && (g <=? i)) | None => 0 end).
  set (b := fun k => match ind order k with Some i => b2n ((j <? k) && (i <? g)) | None => 0 end).
  set (b' := fun k => match ind order k with Some i => b2n ((k <? j) && (i <? g)) | None => 0 end).
  assert (Hcost : cost n order j g = sumn n a + sumn n b).
  { unfold cost. rewrite <- sumn_add. apply sumn_ext. intros k _. unfold a, b.
    destruct (ind order k); reflexivity. }
  assert (Hbb : sumn n b + sumn n b' = g).
  { rewrite <- sumn_add.
    transitivity (sumn m (fun i => b2n (i <? g))); [|apply sumn_ltb; assumption].
    rewrite <- (sum_mentioned (fun i => b2n (i <? g))).
    apply sumn_ext. intros k _. unfold b, b'. destruct (ind order k) as [i|] eqn:E; [|reflexivity].
    assert (k <> j) by congruence.
    destruct (Nat.ltb_spec j k), (Nat.ltb_spec k j), (i <? g); simpl; lia. }
  assert (Hd : (sumz n (fun k => Z.of_nat (a k)) - sumz n (fun k => Z.of_nat (b' k)))%Z
               = sumz j (fun k => delta order k g)).
  { rewrite <- sumz_sub. rewrite <- (sumz_restrict n j) by assumption.
    apply sumz_ext. intros k _. unfold a, b', delta.
    destruct (ind order k) as [i|]; [|destruct (k <? j); reflexivity].
    destruct (k <? j); simpl; [|reflexivity].
    destruct (Nat.leb_spec g i), (Nat.ltb_spec i g); simpl; lia. }
  unfold segv. rewrite <- Hd, <- !sumz_of_nat. lia.
Qed.

(** the indicator of an unmentioned level is a cost-minimal gap ... *)
Lemma pind_min j g :
  ind order j = None -> j <= n -> g <= m ->
  cost n order j (pind order j) <= cost n order j g.
Proof.
  intros Ej Hj Hg.
  pose proof (pind_le order j) as Hp.
  apply Nat2Z.inj_le. rewrite !cost_segv by assumption.
  unfold pind. rewrite Ej.
  destruct (min_index_spec (segl order j)) as (H1 & H2 & _).
  { unfold segl. simpl. discriminate. }
  rewrite segl_length in H1, H2.
  specialize (H2 g ltac:(lia)). rewrite !segl_nth in H2 by lia. exact H2.
Qed.

(** ... and the top-most one *)
Lemma pind_first j g :
  ind order j = None -> j <= n -> g < pind order j ->
  cost n order j (pind order j) < cost n order j g.
Proof.
  intros Ej Hj Hg.
  pose proof (pind_le order j) as Hp.
  apply Nat2Z.inj_lt. rewrite !cost_segv by (auto; lia).
  unfold pind in *. rewrite Ej in *.
  destruct (min_index_spec (segl order j)) as (H1 & _ & H3).
  { unfold segl. simpl. discriminate. }
  rewrite segl_length in H1.
  specialize (H3 g Hg). rewrite !segl_nth in H3 by lia. exact H3.
Qed.

(** ** the minimal gaps of unmentioned levels are monotone *)

Lemma delta_antitone k g1 g2 : g1 <= g2 -> (delta order k g2 <= delta order k g1)%Z.
Proof.
  intros H. unfold delta. destruct (ind order k) as [i|]; [|lia].
  destruct (Nat.leb_spec g1 i), (Nat.leb_spec g2 i); lia.
Qed.

Lemma segv_diff_antitone j j' g1 g2 :
  j <= j' -> g1 <= g2 ->
  (segv order j' g2 - segv order j g2 <= segv order j' g1 - segv order j g1)%Z.
Proof.
  intros Hj Hg. unfold segv.
  pose proof (sumz_nonneg_mono (fun k => (delta order k g1 - delta order k g2)%Z) j j'
                ltac:(intros k; pose proof (delta_antitone k g1 g2 Hg); lia) Hj) as H.
  rewrite !sumz_sub in H. lia.
Qed.

Lemma pind_mono a b :
  ind order a = None -> ind order b = None -> a <= b -> pind order a <= pind order b.
Proof.
  intros Ea Eb Hab.
  destruct (Nat.le_gt_cases (pind order a) (pind order b)) as [|Hlt]; [assumption|exfalso].
  pose proof (pind_le order a) as Hpa.
  pose proof (segv_diff_antitone a b (pind order b) (pind order a) Hab ltac:(lia)) as Hd.
  unfold pind in *. rewrite Ea, Eb in *.
  destruct (min_index_spec (segl order a)) as (A1 & _ & A3); [unfold segl; simpl; discriminate|].
  destruct (min_index_spec (segl order b)) as (B1 & B2 & _); [unfold segl; simpl; discriminate|].
  rewrite segl_length in *.
  specialize (A3 _ Hlt). specialize (B2 (min_index (segl order a)) ltac:(lia)).
  rewrite !segl_nth in A3, B2 by lia. lia.
Qed.

End Cost.
(** * Theorem: the completion minimises the number of inversions *)

Section Optimal.
Variable n : nat.
Variable order : list nat.
Hypothesis Hv : valid_order n order.
Notation m := (length order).
Notation p := (pind order).

Lemma isM_false l : isM order l = false <-> ind order l = None.
Proof. unfold isM. destruct (ind order l); split; congruence. Qed.

Lemma pind_mentioned l i : ind order l = Some i -> p l = i.
Proof. intros E. unfold pind. rewrite E. reflexivity. Qed.

Lemma pos_ltb a b : a < n -> b < n -> (pos n order a <? pos n order b) = lexltb p a b.
Proof.
  intros Ha Hb. pose proof (pos_iso n order a b Hv Ha Hb) as H.
  destruct (Nat.ltb_spec (pos n order a) (pos n order b)) as [L|L].
  - symmetry. apply H. assumption.
  - destruct (lexltb p a b); [|reflexivity]. exfalso.
    pose proof (proj2 H eq_refl). lia.
Qed.

Lemma invf_pos : invf n (pos n order) = invf n p.
Proof.
  unfold invf. apply sumn_ext. intros a Ha. apply sumn_ext. intros b Hb.
  rewrite pos_ltb by assumption. unfold lexltb.
  destruct (Nat.ltb_spec a b) as [L|L]; [|reflexivity].
  replace (b <? a) with false by (symmetry; apply Nat.ltb_ge; clear - L; lia).
  rewrite andb_false_r, orb_false_r. reflexivity.
Qed.

Lemma Suu_p : Suu order n p = 0.
Proof.
  unfold Suu, sumn2. apply sumn_zero. intros a Ha. apply sumn_zero. intros b Hb.
  unfold mU. destruct (isM order a) eqn:Ea; [reflexivity|].
  destruct (isM order b) eqn:Eb; [simpl; lia|].
  apply isM_false in Ea, Eb. unfold G.
  destruct (Nat.ltb_spec a b) as [Hab|]; [|reflexivity].
  pose proof (pind_mono order a b Ea Eb ltac:(lia)).
  replace (p b <? p a) with false by (symmetry; apply Nat.ltb_ge; assumption).
  reflexivity.
Qed.

(** an unmentioned level is never placed by the counting pass on the wrong side of
    the mentioned level that shares its indicator *)
Lemma cost_gap_step j g k :
  ind order j = None -> j < n -> ind order k = Some g -> k < j ->
  cost n order j g = S (cost n order j (S g)).
Proof.
  intros Ej Hj Ek Hkj. unfold cost.
  assert (Hk : k < n) by lia.
  rewrite (sumn_split n k (fun k0 => match ind order k0 with
                             | Some i => b2n ((k0 <? j) && (g <=? i)) + b2n ((j <? k0) && (i <? g))
                             | None => 0 end) Hk).
  rewrite (sumn_split n k (fun k0 => match ind order k0 with
                             | Some i => b2n ((k0 <? j) && (S g <=? i)) + b2n ((j <? k0) && (i <? S g))
                             | None => 0 end) Hk).
  rewrite Ek.
  replace (k <? j) with true by (symmetry; apply Nat.ltb_lt; assumption).
  replace (j <? k) with false by (symmetry; apply Nat.ltb_ge; lia).
  rewrite Nat.leb_refl. replace (S g <=? g) with false by (symmetry; apply Nat.leb_gt; lia).
  cbn [andb b2n].
  match goal with |- _ + ?A = S (_ + ?B) => assert (HAB : A = B); [|rewrite HAB; lia] end.
  apply sumn_ext. intros x Hx.
  destruct (Nat.eqb_spec x k) as [|Hne]; [reflexivity|].
  destruct (ind order x) as [i|] eqn:Ex; [|reflexivity].
  assert (i <> g).
  { intros ->. apply Hne. destruct Hv as [Hnd _].
    apply ind_some_iff in Ex, Ek; try assumption. congruence. }
  assert (Eq : (S g <=? i) = (g <=? i) /\ (i <? S g) = (i <? g)).
  { clear - H. destruct (Nat.leb_spec g i), (Nat.leb_spec (S g) i), (Nat.ltb_spec i g), (Nat.ltb_spec i (S g));
      split; try reflexivity; lia. }
  destruct Eq as [-> ->]. reflexivity.
Qed.

Lemma pind_no_tie j k :
  ind order j = None -> j < n -> ind order k = Some (p j) -> j < k.
Proof.
  intros Ej Hj Ek.
  assert (k <> j) by congruence.
  destruct (Nat.lt_ge_cases j k) as [|Hle]; [assumption|exfalso].
  pose proof (cost_gap_step j (p j) k Ej Hj Ek ltac:(lia)) as H1.
  pose proof (ind_lt _ _ _ Ek) as Hlt.
  pose proof (pind_min n order Hv j (S (p j)) Ej ltac:(lia) ltac:(lia)). lia.
Qed.

Lemma Cmu_p_eq j : ind order j = None -> j < n -> Cmu order n p j = cost n order j (p j).
Proof.
  intros Ej Hj. unfold Cmu, cost. apply sumn_ext. intros k Hk.
  unfold mM, isM. destruct (ind order k) as [i|] eqn:Ek; [|simpl; lia].
  unfold G. rewrite (pind_mentioned k i Ek).
  destruct (Nat.eq_dec i (p j)) as [->|Hne].
  - pose proof (pind_no_tie j k Ej Hj Ek).
    replace (k <? j) with false by (symmetry; apply Nat.ltb_ge; lia). simpl. lia.
  - (* off the tie, [<=] and [<] on the indicators agree and the two counts are the same term *)
    replace (p j <=? i) with (p j <? i); [simpl; lia|].
    clear - Hne. destruct (Nat.ltb_spec (p j) i), (Nat.leb_spec (p j) i); try reflexivity; lia.
Qed.

(** ** any other admissible target order *)

Variable u : list nat.
Hypothesis Hu : Permutation u (seq 0 n).
Hypothesis Hresp : respects order u.
Notation uf := (fun i => nth i u 0).

Lemma u_length : length u = n.
Proof. rewrite (Permutation_length Hu). apply seq_length. Qed.

Lemma u_inj a b : a < n -> b < n -> nth a u 0 = nth b u 0 -> a = b.
Proof.
  intros Ha Hb H. assert (Hnd : NoDup u).
  { apply (Permutation_NoDup (Permutation_sym Hu)). apply seq_NoDup. }
  rewrite NoDup_nth in Hnd. apply Hnd; rewrite ?u_length; eauto.
Qed.

Lemma u_mm a b i k :
  ind order a = Some i -> ind order b = Some k -> (nth b u 0 <? nth a u 0) = (k <? i).
Proof.
  intros Ea Eb. destruct Hv as [Hnd _].
  pose proof (ind_lt _ _ _ Ea) as Hi. pose proof (ind_lt _ _ _ Eb) as Hk.
  apply ind_some_iff in Ea, Eb; try assumption.
  apply (nth_error_nth _ _ 0) in Ea, Eb.
  destruct (Nat.ltb_spec k i) as [L|L].
  - apply Nat.ltb_lt. pose proof (Hresp k i ltac:(lia)) as H. rewrite Ea, Eb in H. exact H.
  - apply Nat.ltb_ge. destruct (Nat.eq_dec i k) as [->|Hne].
    + assert (a = b) by congruence. subst. lia.
    + pose proof (Hresp i k ltac:(lia)) as H. rewrite Ea, Eb in H. lia.
Qed.

Lemma Smm_u : Smm order n uf = Smm order n p.
Proof.
  unfold Smm. apply sumn2_ext. intros a b Ha Hb.
  unfold mM, isM. destruct (ind order a) as [i|] eqn:Ea; [|reflexivity].
  destruct (ind order b) as [k|] eqn:Eb; [|simpl; lia].
  unfold G. rewrite (u_mm a b i k Ea Eb), (pind_mentioned a i Ea), (pind_mentioned b k Eb).
  reflexivity.
Qed.

(** the gap [u] puts level [j] into *)
Definition gap_of (j : nat) : nat := sumn m (fun i => b2n (nth (nth i order 0) u 0 <? nth j u 0)).

Lemma gap_of_le j : gap_of j <= m.
Proof. apply sumn_b2n_le. Qed.

Lemma Cmu_u j : j < n -> ind order j = None -> Cmu order n uf j = cost n order j (gap_of j).
Proof.
  intros Hj Ej. unfold Cmu, cost. apply sumn_ext. intros k Hk.
  unfold mM, isM. destruct (ind order k) as [i|] eqn:Ek; [|simpl; lia].
  assert (Hne : k <> j) by congruence.
  pose proof (ind_lt _ _ _ Ek) as Hi.
  assert (Hki : nth i order 0 = k).
  { destruct Hv as [Hnd _]. apply ind_some_iff in Ek; [|assumption].
    apply (nth_error_nth _ _ 0) in Ek. exact Ek. }
  pose proof (incr_threshold m (fun i => nth (nth i order 0) u 0) (nth j u 0)
                ltac:(intros a b Hab; apply Hresp; lia) i Hi) as Hthr.
  simpl in Hthr. rewrite Hki in Hthr. fold (gap_of j) in Hthr.
  assert (Hneq : nth k u 0 <> nth j u 0).
  { intros E. apply Hne. apply u_inj; assumption. }
  unfold G.
  assert (H1 : (nth k u 0 <? nth j u 0) = (i <? gap_of j)) by exact Hthr.
  assert (H2 : (nth j u 0 <? nth k u 0) = (gap_of j <=? i)).
  { destruct (Nat.ltb_spec i (gap_of j)) as [L|L].
    - apply Nat.ltb_lt in H1. rewrite (proj2 (Nat.leb_gt _ _) L). apply Nat.ltb_ge. lia.
    - apply Nat.ltb_ge in H1. rewrite (proj2 (Nat.leb_le _ _) L). apply Nat.ltb_lt. lia. }
  rewrite H1, H2. simpl. lia.
Qed.

Lemma min_inversions_main : inv (sort_order n order) <= inv u.
Proof.
  rewrite (inv_invf (sort_order n order)), (inv_invf u), sort_order_length, u_length by assumption.
  rewrite (invf_ext n _ (pos n order)) by (intros; apply sort_order_nth; assumption).
  rewrite invf_pos. rewrite !(invf_split order n). rewrite Suu_p, Smm_u.
  assert (sumn n (fun j => mU order j * Cmu order n p j)
          <= sumn n (fun j => mU order j * Cmu order n uf j)); [|lia].
  apply sumn_le. intros j Hj. unfold mU. destruct (isM order j) eqn:Ej; simpl; [lia|].
  apply isM_false in Ej. rewrite !Nat.add_0_r.
  rewrite (Cmu_u j Hj Ej), (Cmu_p_eq j Ej Hj).
  apply pind_min; auto; [lia|apply gap_of_le].
Qed.

End Optimal.

Theorem sort_order_min_inversions n order u :
  valid_order n order -> Permutation u (seq 0 n) -> respects order u ->
  inv (sort_order n order) <= inv u.
Proof. intros. apply min_inversions_main; assumption. Qed.
(** * Top-most optimal gap, and the specification as a whole *)

(** number of mentioned levels that [t] places above level [j]: the gap of [j] *)
Definition gap_in (order t : list nat) (j : nat) : nat :=
  sumn (length order) (fun i => b2n (nth (nth i order 0) t 0 <? nth j t 0)).

(** meaning of [cost]: in every admissible target order the unmentioned level
    [j] has exactly [cost j (gap of j)] inversions with mentioned levels *)
Theorem cost_meaning n order u j :
  valid_order n order -> Permutation u (seq 0 n) -> respects order u ->
  j < n -> ~ In j order ->
  sumn n (fun k => if existsb (Nat.eqb k) order
                   then b2n ((k <? j) && (nth j u 0 <? nth k u 0))
                        + b2n ((j <? k) && (nth k u 0 <? nth j u 0))
                   else 0)
  = cost n order j (gap_in order u j).
Proof.
  intros Hv Hu Hr Hj Hn. apply index_of_none in Hn.
  change (gap_in order u j) with (gap_of order u j).
  rewrite <- (Cmu_u n order Hv u Hu Hr j Hj Hn). unfold Cmu. apply sumn_ext. intros k Hk.
  unfold mM, isM, G.
  destruct (existsb (Nat.eqb k) order) eqn:E.
  - apply existsb_exists in E. destruct E as (x & Hx & Hkx). apply Nat.eqb_eq in Hkx. subst x.
    destruct (ind order k) eqn:E'; [simpl; lia|]. apply index_of_none in E'. contradiction.
  - destruct (ind order k) as [i|] eqn:E'; [|reflexivity]. exfalso.
    apply index_of_nth in E'. apply nth_error_In in E'.
    assert (existsb (Nat.eqb k) order = true); [|congruence].
    apply existsb_exists. exists k. split; [assumption|apply Nat.eqb_refl].
Qed.

Section Topmost.
Variable n : nat.
Variable order : list nat.
Hypothesis Hv : valid_order n order.
Notation p := (pind order).

Lemma sort_order_gap j :
  j < n -> ind order j = None -> gap_in order (sort_order n order) j = p j.
Proof.
  intros Hj Ej. unfold gap_in.
  rewrite <- (sumn_ltb (length order) (p j) (pind_le order j)).
  apply sumn_ext. intros i Hi. f_equal.
  pose proof (order_nth_lt n order i Hv Hi) as Hk.
  pose proof (ind_order_nth n order i Hv Hi) as Ek.
  rewrite !sort_order_nth by assumption.
  rewrite pos_ltb by assumption. unfold lexltb.
  rewrite (pind_mentioned order _ _ Ek).
  destruct (Nat.eqb_spec i (p j)) as [->|Hne].
  - pose proof (pind_no_tie n order Hv j _ Ej Hj Ek).
    rewrite Nat.ltb_irrefl. simpl. apply Nat.ltb_ge. lia.
  - rewrite andb_false_l, orb_false_r. reflexivity.
Qed.

(** unmentioned levels keep their mutual order *)
Theorem sort_order_keeps_unmentioned a b :
  a < b < n -> ~ In a order -> ~ In b order ->
  nth a (sort_order n order) 0 < nth b (sort_order n order) 0.
Proof.
  intros Hab Ha Hb. apply index_of_none in Ha, Hb.
  rewrite !sort_order_nth by (auto; lia).
  apply pos_iso; try assumption; try lia. apply lexltb_iff.
  pose proof (pind_mono order a b Ha Hb ltac:(lia)). lia.
Qed.

(** every unmentioned level sits in the top-most cost-minimal gap *)
Theorem sort_order_topmost j g' :
  j < n -> ~ In j order -> g' <= length order ->
  let g := gap_in order (sort_order n order) j in
  cost n order j g <= cost n order j g' /\ (g' < g -> cost n order j g < cost n order j g').
Proof.
  intros Hj Hn Hg'. apply index_of_none in Hn. fold (ind order j) in Hn.
  cbv zeta. rewrite (sort_order_gap j Hj Hn). split.
  - apply (pind_min n); auto; lia.
  - intros H. apply (pind_first n); auto; lia.
Qed.

(** inversions of the result = inversions among mentioned levels (fixed by the
    request) + the minimal cost of every unmentioned level *)
Theorem sort_order_cost_eq :
  inv (sort_order n order)
  = Smm order n p + sumn n (fun j => mU order j * cost n order j (p j)).
Proof.
  rewrite (inv_invf (sort_order n order)), sort_order_length by assumption.
  rewrite (invf_ext n _ (pos n order)) by (intros; apply sort_order_nth; assumption).
  rewrite (invf_pos n order Hv), (invf_split order n), (Suu_p n order), Nat.add_0_r. f_equal.
  apply sumn_ext. intros j Hj. unfold mU. destruct (isM order j) eqn:Ej; [reflexivity|].
  apply isM_false in Ej. rewrite (Cmu_p_eq n order Hv j Ej Hj). reflexivity.
Qed.

End Topmost.

(** the naive specification of [sort_order] *)
Record sort_order_spec (n : nat) (order t : list nat) : Prop := {
  sos_perm : Permutation t (seq 0 n);
  sos_respects : respects order t;
  sos_min : forall u, Permutation u (seq 0 n) -> respects order u -> inv t <= inv u;
  sos_keep : forall a b, a < b < n -> ~ In a order -> ~ In b order -> nth a t 0 < nth b t 0;
  sos_topmost : forall j g', j < n -> ~ In j order -> g' < gap_in order t j ->
      cost n order j (gap_in order t j) < cost n order j g'
}.

Theorem sort_order_meets_spec n order :
  valid_order n order -> sort_order_spec n order (sort_order n order).
Proof.
  intros Hv. constructor.
  - apply sort_order_perm; assumption.
  - apply sort_order_respects; assumption.
  - intros. apply sort_order_min_inversions; assumption.
  - intros. apply sort_order_keeps_unmentioned; assumption.
  - intros j g' Hj Hn Hg'.
    assert (Hle : g' <= length order).
    { pose proof (sumn_b2n_le (length order)
        (fun i => nth (nth i order 0) (sort_order n order) 0 <? nth j (sort_order n order) 0)).
      unfold gap_in in Hg'. lia. }
    apply (sort_order_topmost n order Hv j g' Hj Hn Hle). assumption.
Qed.

Lemma order_ok_b_valid n order : order_ok_b n order = true <-> valid_order n order.
Proof.
  unfold order_ok_b, valid_order. rewrite andb_true_iff, forallb_forall, Forall_forall.
  assert (Hnd : nodup_b order = true <-> NoDup order).
  { induction order as [|x r IH]; simpl.
    - split; [constructor|reflexivity].
    - rewrite andb_true_iff, negb_true_iff, IH. split.
      + intros [H1 H2]. constructor; [|assumption]. intros Hin.
        assert (existsb (Nat.eqb x) r = true); [|congruence].
        apply existsb_exists. exists x. split; [assumption|apply Nat.eqb_refl].
      + intros H. inversion H as [|? ? Hni Hnd]; subst. split; [|assumption].
        destruct (existsb (Nat.eqb x) r) eqn:E; [|reflexivity]. exfalso.
        apply existsb_exists in E. destruct E as (y & Hy & Hxy). apply Nat.eqb_eq in Hxy.
        subst. contradiction. }
  rewrite Hnd. split.
  - intros [H1 H2]. split; [assumption|]. intros x Hx. apply Nat.ltb_lt. auto.
  - intros [H1 H2]. split; [|assumption]. intros x Hx. apply Nat.ltb_lt. auto.
Qed.

(** the Rust unit-test vectors ([test_sort_order]) *)
Example sort_order_ex1 : sort_order 4 [0;1;2;3] = [0;1;2;3]. Proof. vm_compute. reflexivity. Qed.
Example sort_order_ex2 : sort_order 4 [1;0;2;3] = [1;0;2;3]. Proof. vm_compute. reflexivity. Qed.
Example sort_order_ex3 : sort_order 4 [0;2;3;1] = [0;3;1;2]. Proof. vm_compute. reflexivity. Qed.
Example sort_order_ex4 : sort_order 3 [2;0] = [2;0;1]. Proof. vm_compute. reflexivity. Qed.
Example sort_order_ex5 : sort_order 10 [6;3;0;4;1;9] = [3;5;0;2;4;6;1;7;8;9].
Proof. vm_compute. reflexivity. Qed.
Example sort_order_ex6 : sort_order 8 [7;3;0;5;6;1] = [3;7;0;2;4;5;6;1].
Proof. vm_compute. reflexivity. Qed.
Example valid_order_ex : valid_order 10 [6;3;0;4;1;9].
Proof. apply order_ok_b_valid. vm_compute. reflexivity. Qed.
(** * [bubble_sort] *)

Lemma swap_adj_length {A} i (l : list A) : length (swap_adj i l) = length l.
Proof.
  revert l; induction i as [|i IH]; intros [|a r]; simpl; auto.
  destruct r; reflexivity.
Qed.

Lemma nth_swap_adj {A} i (l : list A) k d :
  S i < length l ->
  nth k (swap_adj i l) d =
  if k =? i then nth (S i) l d else if k =? S i then nth i l d else nth k l d.
Proof.
  revert l k; induction i as [|i IH]; intros l k H.
  - destruct l as [|a [|b r]]; simpl in H; try lia. destruct k as [|[|k]]; reflexivity.
  - destruct l as [|a r]; simpl in H; [lia|]. destruct k as [|k]; [reflexivity|].
    cbn [swap_adj nth]. rewrite IH by lia. reflexivity.
Qed.

Lemma swap_adj_perm {A} i (l : list A) : Permutation (swap_adj i l) l.
Proof.
  revert l; induction i as [|i IH]; intros [|a r]; simpl; auto.
  destruct r; [reflexivity|apply perm_swap].
Qed.

Lemma swap_adj_map {A B} (f : A -> B) i l : swap_adj i (map f l) = map f (swap_adj i l).
Proof.
  revert l; induction i as [|i IH]; intros [|a r]; simpl; auto.
  - destruct r; reflexivity.
  - f_equal. apply IH.
Qed.

Lemma replay_map {A B} (f : A -> B) sw l : replay sw (map f l) = map f (replay sw l).
Proof.
  revert l; induction sw as [|i r IH]; intros l; [reflexivity|].
  unfold replay in *. simpl. rewrite swap_adj_map. apply IH.
Qed.

Lemma replay_app {A} a b (l : list A) : replay (a ++ b) l = replay b (replay a l).
Proof. unfold replay. apply fold_left_app. Qed.

Lemma replay_length {A} sw (l : list A) : length (replay sw l) = length l.
Proof.
  revert l; induction sw as [|i r IH]; intros l; [reflexivity|].
  unfold replay in *. simpl. rewrite IH. apply swap_adj_length.
Qed.

Lemma replay_perm {A} sw (l : list A) : Permutation (replay sw l) l.
Proof.
  revert l; induction sw as [|i r IH]; intros l; [reflexivity|].
  unfold replay in *. simpl. rewrite IH. apply swap_adj_perm.
Qed.

Lemma count_lt_swap x i l : count_lt x (swap_adj i l) = count_lt x l.
Proof.
  revert l; induction i as [|i IH]; intros [|a r]; simpl; auto.
  destruct r; simpl; lia.
Qed.

(** exchanging an out-of-order adjacent pair removes exactly one inversion *)
Lemma inv_swap_adj i l :
  S i < length l -> nth (S i) l 0 < nth i l 0 -> inv l = S (inv (swap_adj i l)).
Proof.
  revert l; induction i as [|i IH]; intros l Hl Hlt.
  - destruct l as [|a [|b r]]; simpl in Hl; try lia. simpl in Hlt. simpl.
    replace (b <? a) with true by (symmetry; apply Nat.ltb_lt; assumption).
    replace (a <? b) with false by (symmetry; apply Nat.ltb_ge; lia). lia.
  - destruct l as [|a r]; simpl in Hl; [lia|]. cbn [swap_adj inv].
    rewrite count_lt_swap. cbn [nth] in Hlt. rewrite (IH r) by (assumption || lia). lia.
Qed.

(** every swap exchanges an adjacent pair that is strictly out of order at
    that moment (hence equal keys are never exchanged: stability) *)
Fixpoint valid_swaps (l : list nat) (sw : list nat) : Prop :=
  match sw with
  | [] => True
  | i :: r => S i < length l /\ nth (S i) l 0 < nth i l 0 /\ valid_swaps (swap_adj i l) r
  end.

Lemma valid_swaps_app l a b :
  valid_swaps l (a ++ b) <-> valid_swaps l a /\ valid_swaps (replay a l) b.
Proof.
  revert l; induction a as [|i r IH]; intros l; simpl; [tauto|].
  rewrite IH. unfold replay. simpl. tauto.
Qed.

Lemma valid_swaps_inv l sw : valid_swaps l sw -> inv l = length sw + inv (replay sw l).
Proof.
  revert l; induction sw as [|i r IH]; intros l H; [reflexivity|].
  destruct H as (H1 & H2 & H3). rewrite (inv_swap_adj i l H1 H2), (IH _ H3).
  unfold replay. simpl. lia.
Qed.

Definition sorted (l : list nat) : Prop :=
  forall a b, a < b < length l -> nth a l 0 <= nth b l 0.

Lemma sorted_inv l : sorted l -> inv l = 0.
Proof.
  intros H. rewrite inv_invf. unfold invf. apply sumn_zero. intros i Hi.
  apply sumn_zero. intros j Hj.
  destruct (Nat.ltb_spec i j) as [L|]; [|reflexivity].
  pose proof (H i j ltac:(lia)).
  replace (nth j l 0 <? nth i l 0) with false by (symmetry; apply Nat.ltb_ge; assumption).
  reflexivity.
Qed.

(** positions in [lo, hi) hold elements that dominate everything before them *)
Definition dom (s : list nat) (lo hi : nat) : Prop :=
  forall j, lo <= j < hi -> forall k, k < j -> nth k s 0 <= nth j s 0.

Lemma bubble_pass_spec s0 cnt : forall i s nn sw s' nn' sw' n,
  bubble_pass cnt i s nn sw = (s', nn', sw') ->
  1 <= i -> i + cnt = n -> n <= length s -> nn < i ->
  valid_swaps s0 (rev sw) -> replay (rev sw) s0 = s ->
  dom s nn i -> dom s n (length s) ->
  valid_swaps s0 (rev sw') /\ replay (rev sw') s0 = s' /\ length s' = length s
  /\ nn' < n /\ dom s' nn' (length s').
Proof.
  induction cnt as [|cnt IH]; intros i s nn sw s' nn' sw' n Hp Hi Hn Hlen Hnn Hval Hrep Hd1 Hd2.
  - simpl in Hp. injection Hp as <- <- <-. assert (i = n) by lia. subst i.
    repeat split; auto. intros j Hj k Hk.
    destruct (Nat.lt_ge_cases j n); [apply Hd1|apply Hd2]; lia.
  - simpl in Hp. destruct (Nat.ltb_spec (nth i s 0) (nth (i - 1) s 0)) as [Hlt|Hge].
    + assert (Hsi : S (i - 1) = i) by lia.
      assert (Hlen' : S (i - 1) < length s) by lia.
      apply (IH _ _ _ _ _ _ _ n) in Hp; try lia.
      * rewrite swap_adj_length in Hp. exact Hp.
      * rewrite swap_adj_length. lia.
      * simpl. apply valid_swaps_app. split; [assumption|]. rewrite Hrep. simpl.
        rewrite Hsi. repeat split; [lia|assumption].
      * simpl. rewrite replay_app, Hrep. reflexivity.
      * intros j Hj k Hk. assert (j = i) by lia. subst j.
        rewrite !nth_swap_adj by assumption. rewrite Hsi.
        replace (i =? i - 1) with false by (symmetry; apply Nat.eqb_neq; lia).
        rewrite Nat.eqb_refl.
        destruct (Nat.eqb_spec k (i - 1)); [lia|].
        replace (k =? i) with false by (symmetry; apply Nat.eqb_neq; lia).
        apply Hd1; lia.
      * rewrite swap_adj_length. intros j Hj k Hk.
        rewrite !nth_swap_adj by assumption. rewrite Hsi.
        replace (j =? i - 1) with false by (symmetry; apply Nat.eqb_neq; lia).
        replace (j =? i) with false by (symmetry; apply Nat.eqb_neq; lia).
        destruct (k =? i - 1); [apply Hd2; lia|]. destruct (k =? i); apply Hd2; lia.
    + apply (IH _ _ _ _ _ _ _ n) in Hp; try lia; auto.
      intros j Hj k Hk. destruct (Nat.eq_dec j i) as [->|]; [|apply Hd1; lia].
      destruct (Nat.eq_dec k (i - 1)) as [->|]; [assumption|].
      pose proof (Hd1 (i - 1) ltac:(lia) k ltac:(lia)). lia.
Qed.

Lemma bubble_loop_spec s0 fuel : forall n s sw s' sw',
  bubble_loop fuel n s sw = (s', sw') ->
  n <= fuel -> n <= length s ->
  valid_swaps s0 (rev sw) -> replay (rev sw) s0 = s -> dom s n (length s) ->
  valid_swaps s0 (rev sw') /\ replay (rev sw') s0 = s' /\ dom s' 1 (length s').
Proof.
  induction fuel as [|fuel IH]; intros n s sw s' sw' Hp Hf Hlen Hval Hrep Hd.
  - simpl in Hp. injection Hp as <- <-. repeat split; auto.
    intros j Hj. apply Hd. lia.
  - simpl in Hp. destruct (Nat.ltb_spec 1 n) as [Hn|Hn].
    + destruct (bubble_pass (n - 1) 1 s 0 sw) as [[s1 nn1] sw1] eqn:E.
      apply (bubble_pass_spec s0 _ _ _ _ _ _ _ _ n) in E; try lia; auto.
      * destruct E as (V & R & L & Hnn & D). apply IH in Hp; auto; lia.
      * intros j Hj k Hk. lia.
    + injection Hp as <- <-. repeat split; auto. intros j Hj. apply Hd. lia.
Qed.

Theorem bubble_sort_correct s :
  let '(s', sw) := bubble_sort s in
  sorted s' /\ Permutation s' s
  /\ valid_swaps s sw /\ replay sw s = s'
  /\ length sw = inv s.
Proof.
  unfold bubble_sort.
  destruct (bubble_loop (length s) (length s) s []) as [s' sw] eqn:E.
  apply (bubble_loop_spec s) in E; simpl; auto.
  2:{ intros j Hj. lia. }
  destruct E as (V & R & D).
  assert (Hs : sorted s').
  { intros a b Hab. apply D; lia. }
  repeat split; auto.
  - rewrite <- R. apply replay_perm.
  - pose proof (valid_swaps_inv s (rev sw) V) as H. rewrite R, (sorted_inv s' Hs) in H. lia.
Qed.

(** every reported index is in range *)
Lemma valid_swaps_range l sw : valid_swaps l sw -> Forall (fun i => S i < length l) sw.
Proof.
  revert l; induction sw as [|i r IH]; intros l H; constructor.
  - apply H.
  - destruct H as (_ & _ & H). apply IH in H. rewrite swap_adj_length in H. exact H.
Qed.

(** replaying the reported swaps on any list of payloads whose keys are [s]
    sorts the payloads by key (this is what the [swap] callback does to the
    levels) *)
Theorem bubble_sort_replay {A} (key : A -> nat) (xs : list A) :
  let '(s', sw) := bubble_sort (map key xs) in
  map key (replay sw xs) = s' /\ Permutation (replay sw xs) xs.
Proof.
  pose proof (bubble_sort_correct (map key xs)) as H.
  destruct (bubble_sort (map key xs)) as [s' sw]. destruct H as (_ & _ & _ & R & _).
  split; [|apply replay_perm]. rewrite <- replay_map. exact R.
Qed.

Example bubble_sort_ex : bubble_sort [4;1;3;0;2] = ([0;1;2;3;4], [0;1;2;3;1;2;0]).
Proof. vm_compute. reflexivity. Qed.
Example bubble_sort_stable_ex : bubble_sort [0;0;1;1] = ([0;0;1;1], []).
Proof. vm_compute. reflexivity. Qed.
(** * [concurrent_bubble_sort]: invariants of the task state machine *)

(** the two indices a pending or running swap at [i] owns *)
Definition pairs (T : list nat) : list nat := flat_map (fun i => [i; S i]) T.

Definition ooo (s : list nat) (k : nat) : Prop := S k < length s /\ nth (S k) s 0 < nth k s 0.

(** [T] = all pending ([tasks]) and running ([inflight]) swaps; [O] = the indices a
    worker still holds inside the critical section of [cb_finish]: its swap is done and
    it has neither released them nor passed them on to a new swap yet *)
Record inv_core (s : list nat) (b : list bool) (T O : list nat) : Prop := {
  ic_len : length b = length s;
  (* no index is owned twice *)
  ic_disj : NoDup (O ++ pairs T);
  (* exactly the owned indices are blocked *)
  ic_blocked : forall k, nth k b false = true <-> In k (O ++ pairs T);
  (* each pending or running swap is an adjacent pair that is strictly out of order *)
  ic_ooo : forall t, In t T -> ooo s t;
  (* every out-of-order adjacent pair touches a blocked index *)
  ic_cover : forall k, ooo s k -> nth k b false = true \/ nth (S k) b false = true
}.

Definition cb_inv (st : cb_state) : Prop :=
  inv_core (cb_seq st) (cb_blocked st) (cb_tasks st ++ cb_inflight st) [].

Lemma pairs_perm T T' : Permutation T T' -> Permutation (pairs T) (pairs T').
Proof.
  intros H. induction H; simpl; auto.
  - change (Permutation ([y; S y] ++ [x; S x] ++ pairs l) ([x; S x] ++ [y; S y] ++ pairs l)).
    rewrite !app_assoc. apply Permutation_app_tail. apply Permutation_app_comm.
  - eapply perm_trans; eassumption.
Qed.

Lemma in_pairs t T : In t T -> In t (pairs T) /\ In (S t) (pairs T).
Proof. intros H. split; apply in_flat_map; exists t; simpl; auto. Qed.

Lemma inv_core_perm s b T T' O : Permutation T T' -> inv_core s b T O -> inv_core s b T' O.
Proof.
  intros HP [H1 H2 H3 H4 H5].
  assert (HPP : Permutation (O ++ pairs T) (O ++ pairs T')) by apply Permutation_app_head, pairs_perm, HP.
  constructor; auto.
  - eapply Permutation_NoDup; eassumption.
  - intros k. rewrite <- HPP. apply H3.
  - intros t Ht. apply H4. eapply Permutation_in; [apply Permutation_sym|]; eassumption.
Qed.

Lemma nth_lset_bool (l : list bool) i j x :
  i < length l -> nth j (lset l i x) false = if j =? i then x else nth j l false.
Proof.
  intros H. rewrite nth_lset. apply Nat.ltb_lt in H. rewrite H, andb_true_r. reflexivity.
Qed.

Lemma swap_core s0 b i T :
  inv_core s0 b (i :: T) [] -> inv_core (swap_adj i s0) b T [i; S i].
Proof.
  intros [Hlen Hdisj Hblk Hooo Hcov].
  destruct (Hooo i (in_eq _ _)) as [Hi _].
  assert (Hs : forall k, k <> i -> k <> S i -> nth k (swap_adj i s0) 0 = nth k s0 0).
  { intros k A B. rewrite nth_swap_adj by assumption.
    apply Nat.eqb_neq in A, B. rewrite A, B. reflexivity. }
  assert (Hown : forall k, k = i \/ k = S i -> nth k b false = true).
  { intros k [-> | ->]; apply Hblk; simpl; auto. }
  constructor; try assumption.
  - rewrite swap_adj_length. assumption.
  - intros t Ht. destruct (Hooo t (in_cons _ _ _ Ht)) as [L1 L2].
    destruct (in_pairs t T Ht) as [I1 I2].
    simpl in Hdisj. inversion Hdisj as [|? ? Ni D1]; subst. inversion D1 as [|? ? Nsi _]; subst.
    assert (Hd : forall k, In k (pairs T) -> k <> i /\ k <> S i).
    { intros k Hk. split; intros ->; [apply Ni; right; assumption|contradiction]. }
    unfold ooo. rewrite swap_adj_length, !Hs by (apply Hd; assumption). split; assumption.
  - intros k [Hk Hok]. rewrite swap_adj_length in Hk.
    destruct (Nat.eq_dec k i); [left; auto|]. destruct (Nat.eq_dec k (S i)); [left; auto|].
    destruct (Nat.eq_dec (S k) i); [right; auto|].
    apply Hcov. split; [assumption|]. rewrite !Hs in Hok by lia. exact Hok.
Qed.

Lemma claim_core s b T O x y t :
  inv_core s b T (x :: O) -> (x = t /\ y = S t) \/ (y = t /\ x = S t) ->
  ooo s t -> nth y b false = false ->
  inv_core s (lset b y true) (t :: T) O.
Proof.
  intros [Hlen Hdisj Hblk Hooo Hcov] Hxy Ht Hy.
  assert (Hyb : y < length b) by (destruct Ht; lia).
  assert (Hny : ~ In y ((x :: O) ++ pairs T)) by (rewrite <- Hblk, Hy; discriminate).
  assert (HP : Permutation (y :: (x :: O) ++ pairs T) (O ++ pairs (t :: T))).
  { simpl. etransitivity; [|apply Permutation_middle].
    etransitivity; [|apply perm_skip, Permutation_middle].
    destruct Hxy as [[-> ->]|[-> ->]]; [apply perm_swap|reflexivity]. }
  constructor.
  - rewrite lset_length. assumption.
  - apply (Permutation_NoDup HP). constructor; assumption.
  - intros k. rewrite nth_lset_bool, <- HP by assumption. cbn [In]. rewrite <- Hblk.
    destruct (Nat.eqb_spec k y) as [->|]; intuition congruence.
  - intros t' [<-|Ht']; [assumption|apply Hooo; assumption].
  - intros k Hk. rewrite !nth_lset_bool by assumption.
    destruct (Hcov k Hk) as [E|E]; rewrite E; [left|right]; destruct (_ =? _); reflexivity.
Qed.

Lemma release_core s b T O x :
  inv_core s b T (x :: O) ->
  (ooo s x -> nth (S x) b false = true) ->
  (forall k, S k = x -> ooo s k -> nth k b false = true) ->
  inv_core s (lset b x false) T O.
Proof.
  intros [Hlen Hdisj Hblk Hooo Hcov] Hdn Hup.
  assert (Hx : x < length b).
  { destruct (Nat.lt_ge_cases x (length b)) as [|Hge]; [assumption|].
    pose proof (proj2 (Hblk x) (in_eq _ _)) as E. rewrite nth_overflow in E by assumption.
    discriminate. }
  simpl in Hdisj. inversion Hdisj as [|? ? Hnx Hd]; subst.
  constructor; try assumption.
  - rewrite lset_length. assumption.
  - intros k. rewrite nth_lset_bool by assumption. destruct (Nat.eqb_spec k x) as [->|].
    + split; [discriminate|contradiction].
    + rewrite Hblk. simpl. intuition congruence.
  - intros k Hk. rewrite !nth_lset_bool by assumption.
    destruct (Nat.eqb_spec k x) as [->|].
    + right. destruct (Nat.eqb_spec (S x) x); [lia|auto].
    + destruct (Nat.eqb_spec (S k) x); [left; auto|apply Hcov; assumption].
Qed.

(** the pieces of [cb_finish] *)
Definition fin_sb (s : list nat) (b0 : list bool) (i : nat) : bool :=
  (0 <? i) && (nth i s 0 <? nth (i - 1) s 0) && negb (nth (i - 1) b0 false).
Definition fin_b1 (s : list nat) (b0 : list bool) (i : nat) : list bool :=
  if fin_sb s b0 i then lset b0 (i - 1) true else lset b0 i false.
Definition fin_c2 (s : list nat) (b0 : list bool) (i : nat) : bool :=
  (i + 2 <? length s) && (nth (i + 2) s 0 <? nth (i + 1) s 0)
  && negb (nth (i + 2) (fin_b1 s b0 i) false).
Definition fin_b2 (s : list nat) (b0 : list bool) (i : nat) : list bool :=
  if fin_c2 s b0 i then lset (fin_b1 s b0 i) (i + 2) true
  else lset (fin_b1 s b0 i) (i + 1) false.
(** the swaps the finishing worker schedules *)
Definition fin_new (s : list nat) (b0 : list bool) (i : nat) : list nat :=
  (if fin_c2 s b0 i then [i + 1] else []) ++ (if fin_sb s b0 i then [i - 1] else []).

Lemma remove1_perm i l : In i l -> Permutation l (i :: remove1 i l).
Proof.
  induction l as [|y r IH]; simpl; [tauto|]. intros H.
  destruct (Nat.eqb_spec i y) as [->|Hne]; [reflexivity|].
  destruct H as [H|H]; [congruence|].
  eapply perm_trans; [apply perm_skip, IH, H|apply perm_swap].
Qed.

Lemma cb_finish_shape st i :
  let s := swap_adj i (cb_seq st) in
  let st' := cb_finish st i in
  cb_seq st' = s /\ cb_blocked st' = fin_b2 s (cb_blocked st) i
  /\ Permutation (cb_tasks st' ++ cb_inflight st')
                 (fin_new s (cb_blocked st) i ++ cb_tasks st ++ remove1 i (cb_inflight st)).
Proof.
  intros s st'. subst st'. unfold cb_finish. fold s.
  fold (fin_sb s (cb_blocked st) i). fold (fin_b1 s (cb_blocked st) i).
  fold (fin_c2 s (cb_blocked st) i). unfold fin_new, fin_b2.
  destruct (fin_c2 s (cb_blocked st) i), (fin_sb s (cb_blocked st) i); cbn [cb_seq cb_blocked cb_tasks cb_inflight app].
  - repeat split; auto. apply perm_skip, Permutation_sym, Permutation_middle.
  - repeat split; auto. apply Permutation_sym, Permutation_middle.
  - repeat split; auto. apply Permutation_sym, Permutation_middle.
  - destruct (cb_tasks st) as [|t r]; cbn [cb_seq cb_blocked cb_tasks cb_inflight app].
    + repeat split; auto.
    + repeat split; auto. apply Permutation_sym, Permutation_middle.
Qed.

(** after its swap at [i] the worker first decides about [i] and the pair above, then
    about [S i] and the pair below *)
Lemma finish_core s0 b0 i T :
  inv_core s0 b0 (i :: T) [] ->
  let s := swap_adj i s0 in
  inv_core s (fin_b2 s b0 i) (fin_new s b0 i ++ T) [].
Proof.
  intros I0 s. pose proof (swap_core _ _ _ _ I0) as I1. fold s in I1.
  destruct (ic_ooo _ _ _ _ I0 i (in_eq _ _)) as [Hi Hlt].
  assert (Hord : ~ ooo s i).
  { unfold ooo, s. rewrite !nth_swap_adj, Nat.eqb_refl by assumption.
    destruct (Nat.eqb_spec (S i) i); [lia|]. rewrite Nat.eqb_refl. lia. }
  assert (I2 : inv_core s (fin_b1 s b0 i) ((if fin_sb s b0 i then [i - 1] else []) ++ T) [S i]).
  { unfold fin_b1. destruct (fin_sb s b0 i) eqn:E; unfold fin_sb in E.
    - rewrite !andb_true_iff, !Nat.ltb_lt, negb_true_iff in E. destruct E as [[E1 E2] E3].
      assert (Ei : S (i - 1) = i) by lia.
      apply (claim_core _ _ _ _ i); [assumption|right; auto| |assumption].
      unfold ooo. rewrite Ei. split; [|assumption]. unfold s. rewrite swap_adj_length. lia.
    - apply release_core; [assumption|tauto|]. intros k <- [_ Hk].
      apply Nat.ltb_lt in Hk. simpl in E. rewrite Nat.sub_0_r, Hk in E.
      apply negb_false_iff in E. exact E. }
  unfold fin_b2, fin_new, fin_c2. rewrite <- app_assoc.
  replace (i + 1) with (S i) by lia. replace (i + 2) with (S (S i)) by lia.
  destruct (_ && _ && _) eqn:E.
  - rewrite !andb_true_iff, !Nat.ltb_lt, negb_true_iff in E. destruct E as [[E1 E2] E3].
    apply (claim_core _ _ _ _ (S i)); [assumption|left; auto|split; assumption|assumption].
  - apply release_core; [assumption| |].
    + intros [Hk1 Hk2]. apply Nat.ltb_lt in Hk1, Hk2. rewrite Hk1, Hk2 in E.
      apply negb_false_iff in E. exact E.
    + intros k [= ->] Hk. contradiction.
Qed.
(** ** the initial scan *)

Lemma cb_scan_inv s fuel : forall i b tasks b' tasks',
  cb_scan fuel i s b tasks = (b', tasks') ->
  length s <= fuel + S i ->
  length b = length s ->
  NoDup (pairs tasks) ->
  (forall k, nth k b false = true <-> In k (pairs tasks)) ->
  (forall k, In k (pairs tasks) -> k < i) ->
  (forall t, In t tasks -> ooo s t) ->
  (forall k, k < i -> ooo s k -> nth k b false = true \/ nth (S k) b false = true) ->
  inv_core s b' tasks' [].
Proof.
  induction fuel as [|fuel IH]; intros i b tasks b' tasks' Hscan Hf Hlen Hnd Hblk Hlt Hooo Hcov.
  - simpl in Hscan. injection Hscan as <- <-. constructor; auto.
    intros k Hk. apply Hcov; [destruct Hk; lia|assumption].
  - simpl in Hscan. destruct (Nat.ltb_spec (S i) (length s)) as [Hi|Hi].
    + destruct (Nat.ltb_spec (nth (S i) s 0) (nth i s 0)) as [Ho|Ho].
      * apply IH in Hscan; auto; try lia.
        -- rewrite !lset_length. assumption.
        -- simpl. fold (pairs tasks). constructor; [|constructor; [|assumption]].
           ++ simpl. intros [H|H]; [lia|]. apply Hlt in H. lia.
           ++ intros H. apply Hlt in H. lia.
        -- intros k. rewrite !nth_lset_bool by (rewrite ?lset_length; lia).
           simpl. fold (pairs tasks). rewrite <- Hblk.
           destruct (Nat.eqb_spec k (S i)), (Nat.eqb_spec k i); subst; intuition (try lia).
        -- simpl. fold (pairs tasks). intros k [<-|[<-|H]]; [lia|lia|]. apply Hlt in H. lia.
        -- intros t [<-|H]; [split; assumption|auto].
        -- intros k Hk Hok. rewrite !nth_lset_bool by (rewrite ?lset_length; lia).
           destruct (Nat.eqb_spec k (S i)); [auto|]. destruct (Nat.eqb_spec k i); [auto|].
           destruct (Nat.eqb_spec (S k) (S i)); [lia|]. destruct (Nat.eqb_spec (S k) i); [auto|].
           apply Hcov; auto; lia.
      * apply IH in Hscan; auto; try lia.
        -- intros k Hk. apply Hlt in Hk. lia.
        -- intros k Hk Hok. destruct (Nat.eq_dec k i) as [->|]; [destruct Hok; lia|].
           apply Hcov; auto; lia.
    + injection Hscan as <- <-. constructor; auto.
      intros k Hk. apply Hcov; [destruct Hk; lia|assumption].
Qed.

Theorem cb_init_inv s : cb_inv (cb_init s) /\ cb_seq (cb_init s) = s /\ cb_inflight (cb_init s) = [].
Proof.
  unfold cb_init. destruct (cb_scan (length s) 0 s (repeat false (length s)) []) as [b t] eqn:E.
  unfold cb_inv. cbn [cb_seq cb_blocked cb_tasks cb_inflight]. rewrite app_nil_r.
  split; [|split; reflexivity]. apply (cb_scan_inv s) in E; auto; try lia.
  all: try (simpl; tauto).
  - apply repeat_length.
  - constructor.
  - intros k. simpl. rewrite nth_repeat. split; [discriminate|tauto].
Qed.

(** ** the worker actions preserve the invariant *)

Theorem cb_take_inv st st' : cb_inv st -> cb_take st = Some st' -> cb_inv st'.
Proof.
  unfold cb_inv, cb_take. intros H E. destruct (cb_tasks st) as [|i r] eqn:Et; [discriminate|].
  injection E as <-. cbn [cb_seq cb_blocked cb_tasks cb_inflight].
  eapply inv_core_perm; [|exact H]. simpl. apply Permutation_middle.
Qed.

Theorem cb_finish_inv st i : cb_inv st -> In i (cb_inflight st) -> cb_inv (cb_finish st i).
Proof.
  unfold cb_inv. intros H Hin.
  destruct (cb_finish_shape st i) as (E1 & E2 & E3). rewrite E1, E2.
  eapply inv_core_perm; [apply Permutation_sym, E3|].
  apply finish_core. eapply inv_core_perm; [|exact H].
  eapply perm_trans; [apply Permutation_app_head, (remove1_perm i), Hin|].
  apply Permutation_sym, Permutation_middle.
Qed.

(** states reachable from the initial scan by any interleaving of worker actions *)
Inductive cb_reach (s0 : list nat) : cb_state -> Prop :=
| cbr_init : cb_reach s0 (cb_init s0)
| cbr_take st st' : cb_reach s0 st -> cb_take st = Some st' -> cb_reach s0 st'
| cbr_finish st i : cb_reach s0 st -> In i (cb_inflight st) -> cb_reach s0 (cb_finish st i).

Lemma cb_reach_inv s0 st : cb_reach s0 st -> cb_inv st /\ Permutation (cb_seq st) s0.
Proof.
  induction 1 as [|st st' _ [IH1 IH2] E|st i _ [IH1 IH2] Hin].
  - destruct (cb_init_inv s0) as (H1 & H2 & _). rewrite H2. split; [assumption|reflexivity].
  - split; [eapply cb_take_inv; eassumption|].
    unfold cb_take in E. destruct (cb_tasks st); [discriminate|]. injection E as <-. assumption.
  - split; [apply cb_finish_inv; assumption|].
    destruct (cb_finish_shape st i) as (E1 & _). rewrite E1.
    eapply perm_trans; [apply swap_adj_perm|assumption].
Qed.

(** two swaps in flight never share an index, and their indices are blocked *)
Theorem no_overlap s0 st :
  cb_reach s0 st ->
  NoDup (pairs (cb_inflight st))
  /\ forall i, In i (cb_inflight st) ->
       nth i (cb_blocked st) false = true /\ nth (S i) (cb_blocked st) false = true.
Proof.
  intros H. apply cb_reach_inv in H. destruct H as [[_ Hd Hb _ _] _].
  unfold pairs in *. rewrite flat_map_app in Hd. split.
  - eapply NoDup_app_r. exact Hd.
  - intros i Hi. split; apply Hb; apply in_flat_map; exists i;
      (split; [apply in_or_app; right; assumption|simpl; auto]).
Qed.

(** pairwise form of [no_overlap] *)
Corollary no_overlap_pairwise s0 st a b i j :
  cb_reach s0 st -> a <> b ->
  nth_error (cb_inflight st) a = Some i -> nth_error (cb_inflight st) b = Some j ->
  i <> j /\ i <> S j /\ S i <> j.
Proof.
  intros H Hab Ha Hb. apply no_overlap in H. destruct H as [Hnd _].
  assert (Hgen : forall l a b i j, NoDup (pairs l) -> a < b ->
            nth_error l a = Some i -> nth_error l b = Some j -> i <> j /\ i <> S j /\ S i <> j).
  { clear. induction l as [|x l IH]; intros a b i j Hnd Hab Ha Hb; [destruct a; discriminate|].
    simpl in Hnd. inversion Hnd as [|? ? N1 Hnd1]; subst. inversion Hnd1 as [|? ? N2 Hnd2]; subst.
    destruct b as [|b]; [lia|]. simpl in Hb. destruct a as [|a].
    - injection Ha as ->. apply nth_error_In in Hb.
      assert (In j (pairs l) /\ In (S j) (pairs l)) as [J1 J2].
      { split; apply in_flat_map; exists j; simpl; auto. }
      repeat split; intros E; subst; simpl in N1; tauto.
    - simpl in Ha. apply (IH a b); auto; lia. }
  destruct (Nat.lt_ge_cases a b).
  - eapply Hgen; eauto.
  - destruct (Hgen _ b a j i Hnd ltac:(lia) Hb Ha) as (H1 & H2 & H3). auto.
Qed.

(** every swap a worker performs exchanges an adjacent pair that is strictly
    out of order *)
Theorem cb_swap_valid s0 st i :
  cb_reach s0 st -> In i (cb_inflight st) ->
  S i < length (cb_seq st) /\ nth (S i) (cb_seq st) 0 < nth i (cb_seq st) 0.
Proof.
  intros H Hi. apply cb_reach_inv in H. destruct H as [[_ _ _ Ho _] _].
  apply Ho. apply in_or_app. right. assumption.
Qed.

Lemma adjacent_sorted l :
  (forall k, S k < length l -> nth k l 0 <= nth (S k) l 0) -> sorted l.
Proof.
  intros H a b [Hab Hb]. induction b as [|b IH]; [lia|].
  destruct (Nat.eq_dec a b) as [->|]; [apply H; assumption|].
  etransitivity; [apply IH; lia|apply H; assumption].
Qed.

(** partial correctness: when the task list is empty and nothing is in flight
    (the condition under which the workers return) the sequence is sorted *)
Theorem cb_done_sorted s0 st :
  cb_reach s0 st -> cb_tasks st = [] -> cb_inflight st = [] ->
  sorted (cb_seq st) /\ Permutation (cb_seq st) s0.
Proof.
  intros H Et Ei. apply cb_reach_inv in H. destruct H as [[_ _ Hb _ Hc] HP].
  split; [|assumption]. rewrite Et, Ei in Hb. simpl in Hb.
  apply adjacent_sorted. intros k Hk.
  destruct (Nat.le_gt_cases (nth k (cb_seq st) 0) (nth (S k) (cb_seq st) 0)) as [|Hlt]; [assumption|].
  destruct (Hc k (conj Hk Hlt)) as [E|E]; apply Hb in E; contradiction.
Qed.

(** the executable schedule runner only produces reachable states *)
Lemma cb_run_reach s0 sched : forall st st',
  cb_reach s0 st -> cb_run sched st = Some st' -> cb_reach s0 st'.
Proof.
  induction sched as [|[i|] r IH]; intros st st' H E; simpl in E.
  - injection E as <-. assumption.
  - destruct (existsb (Nat.eqb i) (cb_inflight st)) eqn:Ex; [|discriminate].
    apply IH in E; [assumption|]. apply cbr_finish; [assumption|].
    apply existsb_exists in Ex. destruct Ex as (x & Hx & Hix). apply Nat.eqb_eq in Hix.
    subst. assumption.
  - destruct (cb_take st) as [st1|] eqn:Et; [|discriminate].
    apply IH in E; [assumption|]. eapply cbr_take; eassumption.
Qed.

Example cb_run_seq_ex :
  fst (cb_run_seq 100 (cb_init [5;4;3;2;1;0]) []) = mkCb [0;1;2;3;4;5] (repeat false 6) [] [].
Proof. vm_compute. reflexivity. Qed.
