(** * reading the branches off an executable step function *)

(** [H : step .. = Some _].  Meant to be run once per step function, to obtain its relation of
    enabled actions and effects ([xstep_spec], [tstep_spec]); proofs about the actions take
    their cases from the relation. *)
Ltac step_cases H :=
  repeat match type of H with
         | context [match ?c with _ => _ end] => destruct c eqn:?; try discriminate H
         end.
