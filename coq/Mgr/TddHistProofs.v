(** Mgr/TddHistProofs.v — package TDDx: the invariant of the TDD manager state machine
    (Mgr/TddHist.v) and what every client call establishes.

    [TInv st] = [TdOK (t_s st)] (C03 for ternary nodes incl. "every handle refers to a stored
    node or terminal") /\ [TCacheOK] (every cache entry is a correct result).
    - [tdok_widen], [dent_widen], [tfun_of_widen], [tcacheok_widen]: transport when levels are
      appended / the handle list is replaced;
    - [td_collected_ok]: a collection ([collected], Mgr/OomGc.v) of a TdOK table;
    - [tstep_ok]: for every state with [TInv], every lossy cache, every [gt], every well-formed
      request: [tstep] is not [None], [TInv] again, [tframe] (every other slot keeps its edge;
      every edge held before is still valid and denotes the same function of the variables)
      and [tpost] (what the destination holds);
    - [trun_ok], [treach_inv], [thist_canonical], [thist_ok_b], [thist_gc].
    No axioms. *)
From Coq Require Import List NArith PArith Bool Arith Lia FMapPositive.
From OxiVerif Require Import DD.Table DD.TableExtra DD.TableProofs DD.Build DD.BuildProofs DD.Apply DD.ApplyProofs
  DD.ConfigApply DD.Tdd DD.ApplyTdd DD.ApplyTddBase DD.ApplyTddProofs DD.ApplyTddIte DD.ApplyTddTop
  DD.TddAudit DD.TddAuditProofs Mgr.History Mgr.HistoryBase Mgr.OomGc Mgr.HistoryGc Mgr.TddHist.
Import ListNotations.

(** * Transport: appending levels / replacing the handle list *)

Lemma term_val_widen : forall s k hs t, term_val (widen s k hs) t = term_val s t.
Proof. reflexivity. Qed.

Lemma tdok_widen : forall s k hs, TdOK s ->
  (forall h, In h hs -> ref_ok s (eref (snd h)) /\ etag (snd h) = false) ->
  TdOK (widen s k hs).
Proof.
  intros s k hs B Hh. constructor.
  - apply wf_widen; [apply (to_wf s B)|]. intros h Hin. destruct (Hh h Hin). split; auto.
  - exact (to_kind s B).
  - exact (to_codes s B).
  - exact (to_terms s B).
Qed.

Lemma dent_widen : forall s k hs r phi, TdOK s -> DenT s r phi -> DenT (widen s k hs) r phi.
Proof.
  intros s k hs r phi B [Hr D]. pose proof (to_wf s B) as H. split; [apply ref_ok_widen; exact Hr|].
  intros a. rewrite semk_widen, widen_nlevels, <- (D a).
  pose proof (rlevel_le s H r). apply (semk_fuel s H); [exact Hr | lia | lia].
Qed.

Lemma dent_widen_inv : forall s k hs r phi, TdOK s -> DenT (widen s k hs) r phi -> DenT s r phi.
Proof.
  intros s k hs r phi B [Hr D]. pose proof (to_wf s B) as H. apply ref_ok_widen in Hr. split; [exact Hr|].
  intros a. rewrite <- (D a), semk_widen, widen_nlevels.
  pose proof (rlevel_le s H r). apply (semk_fuel s H); [exact Hr | lia | lia].
Qed.

Lemma lvl_asg_widen : forall s k hs av l, l < nlevels s -> lvl_asg (widen s k hs) av l = lvl_asg s av l.
Proof.
  intros s k hs av l Hl. unfold lvl_asg. simpl. rewrite nth_error_app1 by exact Hl. reflexivity.
Qed.

(** the function of the VARIABLES is unchanged *)
Lemma tfun_of_widen : forall s k hs r av, TdOK s -> ref_ok s r ->
  tfun_of (widen s k hs) r av = tfun_of s r av.
Proof.
  intros s k hs r av B Hr. pose proof (to_wf s B) as H. destruct (dent_exists s r B Hr) as [phi D].
  rewrite (tfun_of_den s r phi D), (tfun_of_den _ r phi (dent_widen s k hs r phi B D)).
  apply tcode_inj. assert (X : Some (tcode (phi (lvl_asg (widen s k hs) av))) = Some (tcode (phi (lvl_asg s av)))).
  { rewrite <- !(proj2 D). apply (semk_ext_below s H). intros l Hl. unfold chc.
    rewrite (lvl_asg_widen s k hs av l Hl). reflexivity. }
  congruence.
Qed.

Lemma tentry_ok_widen : forall s k hs code args r, TdOK s ->
  tentry_ok s code args r -> tentry_ok (widen s k hs) code args r.
Proof.
  intros s k hs code args r B. unfold tentry_ok.
  destruct args as [|f [|g [|h [|x rest]]]]; auto.
  - intros Hx Hc. destruct (Hx Hc) as [phi [A D]]. exists phi. split; apply dent_widen; auto.
  - intros Hx o Hc. destruct (Hx o Hc) as [phi [psi [A [A' D]]]]. exists phi, psi.
    split; [|split]; apply dent_widen; auto.
  - intros Hx Hc. destruct (Hx Hc) as [phi [psi [theta [A [A' [A'' D]]]]]]. exists phi, psi, theta.
    split; [|split; [|split]]; apply dent_widen; auto.
Qed.

Lemma tcacheok_widen : forall C (cget : C -> N -> list ref -> option ref) s k hs c, TdOK s ->
  TCacheOK cget s c -> TCacheOK cget (widen s k hs) c.
Proof. intros C cget s k hs c B O code args r E. apply tentry_ok_widen; [exact B | apply (O code args r E)]. Qed.

Lemma td_handle_ok : forall s h, TdOK s -> In h (s_handles s) -> ref_ok s (eref (snd h)) /\ etag (snd h) = false.
Proof.
  intros s h B Hin. destruct (wf_handles s (to_wf s B) h Hin) as [A T]. split; [exact A|]. apply T.
  rewrite (to_kind s B). discriminate.
Qed.

(** the handle list after [put] *)
Lemma hset_handles_ok : forall s d r, TdOK s -> ref_ok s r ->
  forall h, In h (hset (s_handles s) d (E r)) -> ref_ok s (eref (snd h)) /\ etag (snd h) = false.
Proof.
  intros s d r B Hr h Hin. unfold hset in Hin. destruct Hin as [<-|Hin]; [split; [exact Hr | reflexivity]|].
  unfold hdel in Hin. apply filter_In in Hin. apply (td_handle_ok s h B (proj1 Hin)).
Qed.

Lemma hdel_handles_ok : forall s a, TdOK s ->
  forall h, In h (hdel (s_handles s) a) -> ref_ok s (eref (snd h)) /\ etag (snd h) = false.
Proof. intros s a B h Hin. unfold hdel in Hin. apply filter_In in Hin. apply (td_handle_ok s h B (proj1 Hin)). Qed.

Lemma put_widen : forall s d r, put s d r = widen s 0 (hset (s_handles s) d (E r)).
Proof. intros. unfold put. apply widen_set_handles. Qed.

Lemma tdok_put : forall s d r, TdOK s -> ref_ok s r -> TdOK (put s d r).
Proof. intros s d r B Hr. rewrite put_widen. apply tdok_widen; [exact B | apply hset_handles_ok; assumption]. Qed.

Lemma hget_In : forall hs x e, hget hs x = Some e -> In (x, e) hs.
Proof.
  induction hs as [|[a e0] r IH]; intros x e; simpl; [discriminate|].
  destruct (N.eqb_spec a x) as [->|Hn]; [intros [= ->]; left; reflexivity | intros E; right; apply IH; exact E].
Qed.

Lemma tslot_ok : forall s x r, TdOK s -> tslot s x = Some r -> ref_ok s r.
Proof.
  intros s x r B. unfold tslot. destruct (hget (s_handles s) x) as [e|] eqn:Eh; [|discriminate].
  intros [= <-]. apply (wf_handles s (to_wf s B) (x, e)). apply hget_In. exact Eh.
Qed.

(** * A collection of a TdOK table *)

Section Collected.
Variables s sg : snap.
Hypothesis B : TdOK s.
Hypothesis Cg : collected s sg.

(** the collected table: TdOK again, a sub-table, every handle valid, every surviving
    reference denotes what it denoted, nothing unreachable is left *)
Theorem td_collected_ok :
  TdOK sg /\ extends sg s /\
  (forall h, In h (s_handles s) -> ref_ok sg (eref (snd h))) /\
  (forall r phi, ref_ok sg r -> (DenT sg r phi <-> DenT s r phi)) /\
  (forall r av, ref_ok sg r -> tfun_of sg r av = tfun_of s r av) /\
  (forall id nd, find_node sg id = Some nd -> reachable sg (handle_refs sg) (RN id)).
Proof.
  pose proof (collected_wf_gen s sg (to_wf s B) Cg) as Hg. pose proof (collected_sub_gen s sg Cg) as X.
  assert (Bg : TdOK sg).
  { constructor.
    - exact Hg.
    - rewrite (co_kind s sg Cg). apply (to_kind s B).
    - intros t c. rewrite (cw_term_val s sg Cg). apply (to_codes s B).
    - intros v. destruct (to_terms s B v) as [t Et]. exists t. rewrite (cw_term_val s sg Cg). exact Et. }
  assert (Sem : forall r, ref_ok sg r -> forall k c0, semk s k r c0 = semk sg k r c0).
  { intros r Hr k c0. apply (semk_extends sg s Hg X k r c0 Hr). }
  split; [exact Bg|]. split; [exact X|]. split; [|split; [|split]].
  - intros h Hh. rewrite <- (co_handles s sg Cg) in Hh. apply (wf_handles sg Hg h Hh).
  - intros r phi Hr. split.
    + apply (dent_extends sg s r phi Bg X).
    + intros [Hs D]. split; [exact Hr|]. intros a. rewrite (cw_nlevels s sg Cg), <- (Sem r Hr). apply D.
  - intros r av Hr. unfold tfun_of, FUEL, lvl_asg. rewrite (cw_nlevels s sg Cg), (co_l2v s sg Cg), <- (Sem r Hr). reflexivity.
  - intros id nd Ef. destruct (proj1 (co_nodes s sg Cg id nd) Ef) as [_ R].
    assert (Gen : forall r, reachable s (handle_refs s) r -> ref_ok s r -> reachable sg (handle_refs sg) r).
    { intros r R0. induction R0 as [r Hin|pid pnd e R0 IH Ep He]; intros Hok.
      - apply reach_root. unfold handle_refs in *. rewrite (co_handles s sg Cg). exact Hin.
      - assert (Hp : ref_ok s (RN pid)) by (exists pnd; exact Ep).
        apply (reach_child sg _ pid pnd e (IH Hp)); [|exact He].
        apply (co_nodes s sg Cg). auto. }
    apply Gen; [exact R | exists nd; apply (cw_old s sg Cg id nd Ef)].
Qed.

End Collected.

(** * The invariant and the step theorem *)

Lemma tfun_of_extends : forall s s' r av, TdOK s -> extends s s' -> ref_ok s r ->
  tfun_of s' r av = tfun_of s r av.
Proof.
  intros s s' r av B X Hr. destruct (dent_exists s r B Hr) as [phi D].
  rewrite (tfun_of_den s r phi D), (tfun_of_den s' r phi (dent_extends s s' r phi B X D)).
  f_equal. unfold lvl_asg. rewrite (ext_l2v _ _ X). reflexivity.
Qed.

Lemma tslot_put_same : forall s d r, tslot (put s d r) d = Some r.
Proof. intros. unfold tslot, put, set_handles. cbn [s_handles]. rewrite hget_hset_same. reflexivity. Qed.

Lemma tslot_put_other : forall s d r x, x <> d -> tslot (put s d r) x = tslot s x.
Proof. intros s d r x Hx. unfold tslot, put, set_handles. cbn [s_handles]. rewrite (hget_hset_other _ _ _ _ Hx). reflexivity. Qed.

Section Steps.
Variable gt : ref -> ref -> bool.
Variable C : Type.
Variable cget : C -> N -> list ref -> option ref.
Variable cadd : C -> N -> list ref -> ref -> C.
Variable cempty : C.
Hypothesis Hlossy : lossy cget cadd.
Hypothesis Hempty : forall k a, cget cempty k a = None.

Notation tstate := (tstate C).
Notation tstep := (tstep gt C cget cadd cempty).
Notation trun := (trun gt C cget cadd cempty).
Notation tinit := (tinit C cempty).

Definition TInv (st : tstate) : Prop := TdOK (t_s C st) /\ TCacheOK cget (t_s C st) (t_c C st).

Definition top_pre (st : tstate) (o : top) : Prop := top_pre_b C st o = true.

(** the slots a call assigns (or clears) *)
Definition tdsts (o : top) : list N :=
  match o with
  | TConst d _ | TVar d _ | TNot d _ | TBin _ d _ _ | TIte d _ _ _ | TClone d _ => [d]
  | TCof dt du de _ => [dt; du; de]
  | TDrop a => [a]
  | TGc | TAddVars _ => []
  end.

(** frame: every other slot keeps its edge; every reference a slot held is still valid and
    denotes the same three-valued function of the variables *)
Definition tframe (st : tstate) (o : top) (st' : tstate) : Prop :=
  (forall x, ~ In x (tdsts o) -> hget (s_handles (t_s C st')) x = hget (s_handles (t_s C st)) x) /\
  (forall x r, tslot (t_s C st) x = Some r ->
     ref_ok (t_s C st') r /\ forall av, tfun_of (t_s C st') r av = tfun_of (t_s C st) r av) /\
  (* the variable order changes only when variables are added *)
  match o with
  | TAddVars _ => True
  | _ => s_l2v (t_s C st') = s_l2v (t_s C st) /\ s_v2l (t_s C st') = s_v2l (t_s C st)
  end.

(** what the call establishes, in terms of the operands' FUNCTIONS at the time of the call *)
Definition tpost (st : tstate) (o : top) (st' : tstate) : Prop :=
  let s := t_s C st in
  let s' := t_s C st' in
  match o with
  | TConst d v => exists r, tslot s' d = Some r /\ forall av, tfun_of s' r av = v
  | TVar d v => exists r, tslot s' d = Some r /\ forall av, tfun_of s' r av = av v
  | TNot d a => forall f, tslot s a = Some f ->
      exists r, tslot s' d = Some r /\ forall av, tfun_of s' r av = k_not (tfun_of s f av)
  | TBin op d a b => forall f g, tslot s a = Some f -> tslot s b = Some g ->
      exists r, tslot s' d = Some r /\
                forall av, tfun_of s' r av = table op (tfun_of s f av) (tfun_of s g av)
  | TIte d a b c => forall f g h, tslot s a = Some f -> tslot s b = Some g -> tslot s c = Some h ->
      exists r, tslot s' d = Some r /\
                forall av, tfun_of s' r av = ite3 (tfun_of s f av) (tfun_of s g av) (tfun_of s h av)
  | TCof dt du de a => forall f, tslot s a = Some f ->
      match td_cofactors s f with
      | None => st' = st
      | Some (t, u, e) =>
        tslot s' de = Some e /\ (du <> de -> tslot s' du = Some u) /\
        (dt <> du -> dt <> de -> tslot s' dt = Some t)
      end
  | TClone d a => tslot s' d = tslot s a
  | TDrop a => tslot s' a = None
  | TGc => extends s' s /\ s_handles s' = s_handles s /\
           forall id nd, find_node s' id = Some nd -> reachable s' (handle_refs s') (RN id)
  | TAddVars k => nlevels s' = nlevels s + k /\ s_handles s' = s_handles s /\
                  s_l2v s' = s_l2v s ++ seq (nlevels s) k /\ s_v2l s' = s_v2l s ++ seq (nlevels s) k /\
                  s_nodes s' = s_nodes s
  end.

Lemma tcacheok_empty : forall s, TCacheOK cget s cempty.
Proof. intros s code args r E. rewrite Hempty in E. discriminate. Qed.

Lemma step_put : forall s s' c' d r, TdOK s -> TdOK s' -> extends s s' -> TCacheOK cget s' c' -> ref_ok s' r ->
  TInv (mkT C (put s' d r) c') /\
  (forall r0, ref_ok s r0 -> ref_ok (put s' d r) r0 /\ forall av, tfun_of (put s' d r) r0 av = tfun_of s r0 av).
Proof.
  intros s s' c' d r B B' X O Hr. split.
  - split; simpl; [apply tdok_put; assumption | rewrite put_widen; apply tcacheok_widen; assumption].
  - intros r0 H0. pose proof (ext_ref_ok s s' r0 X H0) as H0'. rewrite put_widen. split.
    + apply ref_ok_widen. exact H0'.
    + intros av. rewrite (tfun_of_widen s' 0 _ r0 av B' H0'). apply tfun_of_extends; assumption.
Qed.

Lemma ref_ok_put : forall s d r r0, ref_ok s r0 -> ref_ok (put s d r) r0.
Proof. intros s d r r0 H0. rewrite put_widen. apply ref_ok_widen. exact H0. Qed.

Lemma tfun_of_put : forall s d r r0 av, TdOK s -> ref_ok s r0 -> tfun_of (put s d r) r0 av = tfun_of s r0 av.
Proof. intros s d r r0 av B H0. rewrite put_widen. apply tfun_of_widen; assumption. Qed.

Lemma occupied_slot : forall s x, occupied s x = true -> exists r, tslot s x = Some r.
Proof.
  intros s x. unfold occupied, tslot. destruct (hget (s_handles s) x) as [e|]; [eauto | discriminate].
Qed.

(** the common tail of the calls with one destination [d]; what is left to show is what
    slot [d] holds *)
Lemma step_store : forall s c o d s' c' r, TdOK s -> tdsts o = [d] -> TdOK s' -> extends s s' ->
  TCacheOK cget s' c' -> ref_ok s' r ->
  tpost (mkT C s c) o (mkT C (put s' d r) c') ->
  exists st', Some (mkT C (put s' d r) c') = Some st' /\ TInv st' /\ tframe (mkT C s c) o st' /\ tpost (mkT C s c) o st'.
Proof.
  intros s c o d s' c' r B Hd B' X O' Hr Po. destruct (step_put s s' c' d r B B' X O' Hr) as [I F2].
  eexists. split; [reflexivity|]. split; [exact I|]. split; [|exact Po]. split; [|split].
  - intros x Hx. rewrite Hd in Hx. unfold put, set_handles. cbn [s_handles t_s].
    rewrite hget_hset_other by (intros ->; apply Hx; left; reflexivity). rewrite (ext_handles _ _ X). reflexivity.
  - intros x r0 Hs. apply F2. apply (tslot_ok s x r0 B Hs).
  - assert (Ord : s_l2v (put s' d r) = s_l2v s /\ s_v2l (put s' d r) = s_v2l s)
      by (split; [apply (ext_l2v _ _ X) | apply (ext_v2l _ _ X)]).
    destruct o; try exact Ord. discriminate Hd.
Qed.

Theorem tstep_ok : forall st o, TInv st -> top_pre st o ->
  exists st', tstep st o = Some st' /\ TInv st' /\ tframe st o st' /\ tpost st o st'.
Proof.
  intros [s c] o [B O] P. unfold top_pre in P. simpl in B, O, P. pose proof (to_wf s B) as H.
  destruct o as [d v|d v|d a|op d a b|d a b cc|dt du de a|d a|a| |k]; simpl in P; unfold tstep; simpl t_s; simpl t_c.
  - (* TConst *)
    destruct (td_const_ok s v B) as [t [Ec [D _]]]. rewrite Ec.
    apply (step_store s c (TConst d v) d s c (RT t) B eq_refl B (extends_refl s) O (proj1 D)).
    exists (RT t). split; [apply tslot_put_same|]. intros av. simpl t_s.
    rewrite (tfun_of_put s d _ _ av B (proj1 D)), (tfun_of_den s _ _ D). reflexivity.
  - (* TVar *)
    rewrite P. apply Nat.ltb_lt in P.
    destruct (td_var_ok s v B P) as [lvl [s' [r [E1 [E2 [Ev [B' [X [D _]]]]]]]]]. rewrite Ev.
    apply (step_store s c (TVar d v) d s' c r B eq_refl B' X (tcacheok_extends C cget s s' c B X O) (proj1 D)).
    exists r. split; [apply tslot_put_same|]. intros av. simpl t_s.
    rewrite (tfun_of_put s' d _ _ av B' (proj1 D)), (tfun_of_den s' _ _ D).
    unfold fn_var, lvl_asg. rewrite (ext_l2v _ _ X), E2. reflexivity.
  - (* TNot *)
    destruct (occupied_slot s a P) as [f Ef]. rewrite Ef. pose proof (tslot_ok s a f B Ef) as Hf.
    destruct (dent_exists s f B Hf) as [phi Df].
    destruct (td_apply_not_ok C cget cadd Hlossy (tfuel s) s c f phi B O Df ltac:(unfold tfuel; lia))
      as [s' [c' [r [Er [B' [X [O' [D _]]]]]]]]. rewrite Er.
    apply (step_store s c (TNot d a) d s' c' r B eq_refl B' X O' (proj1 D)).
    intros f0 Ef0. simpl t_s in *. rewrite Ef in Ef0. injection Ef0 as <-.
    exists r. split; [apply tslot_put_same|]. intros av.
    rewrite (tfun_of_put s' d _ _ av B' (proj1 D)), (tfun_of_den s' _ _ D), (tfun_of_den s _ _ Df).
    unfold fn_not, lvl_asg. rewrite (ext_l2v _ _ X). reflexivity.
  - (* TBin *)
    apply andb_true_iff in P. destruct P as [Pa Pb].
    destruct (occupied_slot s a Pa) as [f Ef]. destruct (occupied_slot s b Pb) as [g Eg]. rewrite Ef, Eg.
    pose proof (tslot_ok s a f B Ef) as Hf. pose proof (tslot_ok s b g B Eg) as Hg.
    destruct (dent_exists s f B Hf) as [phi Df]. destruct (dent_exists s g B Hg) as [psi Dg].
    destruct (td_apply_bin_ok gt C cget cadd Hlossy op (tfuel s) s c f g phi psi B O Df Dg ltac:(unfold tfuel; lia))
      as [s' [c' [r [Er [B' [X [O' [D _]]]]]]]]. rewrite Er.
    apply (step_store s c (TBin op d a b) d s' c' r B eq_refl B' X O' (proj1 D)).
    intros f0 g0 Ef0 Eg0. simpl t_s in *. rewrite Ef in Ef0. rewrite Eg in Eg0. injection Ef0 as <-. injection Eg0 as <-.
    exists r. split; [apply tslot_put_same|]. intros av.
    rewrite (tfun_of_put s' d _ _ av B' (proj1 D)), (tfun_of_den s' _ _ D), (tfun_of_den s _ _ Df), (tfun_of_den s _ _ Dg).
    unfold fn_bin, lvl_asg. rewrite (ext_l2v _ _ X). reflexivity.
  - (* TIte *)
    apply andb_true_iff in P. destruct P as [P Pc]. apply andb_true_iff in P. destruct P as [Pa Pb].
    destruct (occupied_slot s a Pa) as [f Ef]. destruct (occupied_slot s b Pb) as [g Eg].
    destruct (occupied_slot s cc Pc) as [h Eh]. rewrite Ef, Eg, Eh.
    pose proof (tslot_ok s a f B Ef) as Hf. pose proof (tslot_ok s b g B Eg) as Hg. pose proof (tslot_ok s cc h B Eh) as Hh.
    destruct (dent_exists s f B Hf) as [phi Df]. destruct (dent_exists s g B Hg) as [psi Dg].
    destruct (dent_exists s h B Hh) as [theta Dh].
    destruct (td_apply_ite_ok gt C cget cadd Hlossy (tfuel s) s c f g h phi psi theta B O Df Dg Dh ltac:(unfold tfuel; lia))
      as [s' [c' [r [Er [B' [X [O' [D _]]]]]]]]. rewrite Er.
    apply (step_store s c (TIte d a b cc) d s' c' r B eq_refl B' X O' (proj1 D)).
    intros f0 g0 h0 Ef0 Eg0 Eh0. simpl t_s in *. rewrite Ef in Ef0. rewrite Eg in Eg0. rewrite Eh in Eh0.
    injection Ef0 as <-. injection Eg0 as <-. injection Eh0 as <-.
    exists r. split; [apply tslot_put_same|]. intros av.
    rewrite (tfun_of_put s' d _ _ av B' (proj1 D)), (tfun_of_den s' _ _ D), (tfun_of_den s _ _ Df),
      (tfun_of_den s _ _ Dg), (tfun_of_den s _ _ Dh).
    unfold fn_ite, lvl_asg. rewrite (ext_l2v _ _ X). reflexivity.
  - (* TCof *)
    destruct (occupied_slot s a P) as [f Ef]. rewrite Ef. pose proof (tslot_ok s a f B Ef) as Hf.
    destruct (dent_exists s f B Hf) as [phi Df].
    pose proof (td_cofactors_ok s f phi B Df) as K. destruct f as [t0|id].
    + rewrite K. exists (mkT C s c). split; [reflexivity|]. split; [split; assumption|]. split; [split; [|split]|].
      * intros x _. reflexivity.
      * intros x r Hs. split; [apply (tslot_ok s x r B Hs) | reflexivity].
      * split; reflexivity.
      * intros f0 Ef0. simpl t_s in *. rewrite Ef in Ef0. injection Ef0 as <-. rewrite K. reflexivity.
    + destruct K as [nd [t [u [e [En [Ec [Dt [Du [De _]]]]]]]]]. rewrite Ec.
      destruct (step_put s s c dt t B B (extends_refl s) O (proj1 Dt)) as [[B1 O1] G1]. simpl in B1, O1.
      destruct (step_put _ _ c du u B1 B1 (extends_refl _) O1 (proj1 (G1 u (proj1 Du)))) as [[B2 O2] G2].
      simpl in B2, O2.
      destruct (step_put _ _ c de e B2 B2 (extends_refl _) O2 (proj1 (G2 e (proj1 (G1 e (proj1 De)))))) as [I3 G3].
      eexists. split; [reflexivity|]. split; [exact I3|]. split; [split; [|split]|].
      * intros x Hx. simpl in Hx. simpl t_s. unfold put, set_handles. cbn [s_handles].
        rewrite !hget_hset_other by (intros ->; tauto). reflexivity.
      * intros x r Hs. simpl t_s in *. destruct (G1 r (tslot_ok s x r B Hs)) as [R1 F1].
        destruct (G2 r R1) as [R2 F2]. destruct (G3 r R2) as [R3 F3]. split; [exact R3|].
        intros av. rewrite F3, F2, F1. reflexivity.
      * split; reflexivity.
      * intros f0 Ef0. simpl t_s in *. rewrite Ef in Ef0. injection Ef0 as <-. rewrite Ec.
        split; [apply tslot_put_same|]. split.
        -- intros N1. rewrite tslot_put_other by exact N1. apply tslot_put_same.
        -- intros N1 N2. rewrite tslot_put_other by exact N2. rewrite tslot_put_other by exact N1.
           apply tslot_put_same.
  - (* TClone *)
    destruct (occupied_slot s a P) as [f Ef]. rewrite Ef. pose proof (tslot_ok s a f B Ef) as Hf.
    apply (step_store s c (TClone d a) d s c f B eq_refl B (extends_refl s) O Hf).
    unfold tpost. simpl t_s. rewrite tslot_put_same, Ef. reflexivity.
  - (* TDrop *)
    eexists. split; [reflexivity|].
    assert (E0 : set_handles s (hdel (s_handles s) a) = widen s 0 (hdel (s_handles s) a)) by apply widen_set_handles.
    split; [|split; [split; [|split]|]].
    + split; simpl; rewrite E0; [apply tdok_widen; [exact B | apply hdel_handles_ok; exact B] | apply tcacheok_widen; assumption].
    + intros x Hx. simpl in *. apply hget_hdel_other. intros ->. apply Hx. left. reflexivity.
    + intros x r Hs. simpl t_s. pose proof (tslot_ok s x r B Hs) as Hr. rewrite E0. split.
      * apply ref_ok_widen. exact Hr.
      * intros av. apply tfun_of_widen; assumption.
    + split; reflexivity.
    + simpl. unfold tslot. simpl. rewrite hget_hdel_same. reflexivity.
  - (* TGc *)
    eexists. split; [reflexivity|].
    pose proof (gc_model_collected s H) as Cg.
    destruct (td_collected_ok s (gc_model s) B Cg) as [Bg [X [Hh [Dn [Tf Rch]]]]].
    split; [|split; [split; [|split]|]].
    + split; simpl; [exact Bg | apply tcacheok_empty].
    + intros x _. simpl. reflexivity.
    + intros x r Hs. simpl t_s. assert (Hr : ref_ok (gc_model s) r).
      { unfold tslot in Hs. simpl t_s in Hs. destruct (hget (s_handles s) x) as [e|] eqn:Eh; [|discriminate]. injection Hs as <-.
        apply (Hh (x, e)). apply hget_In. exact Eh. }
      split; [exact Hr|]. intros av. apply Tf. exact Hr.
    + split; [apply (co_l2v _ _ Cg) | apply (co_v2l _ _ Cg)].
    + simpl. split; [exact X|]. split; [apply (co_handles _ _ Cg) | exact Rch].
  - (* TAddVars *)
    eexists. split; [reflexivity|].
    pose proof (fun h => td_handle_ok s h B) as Hhs.
    split; [|split; [split; [|split]|]].
    + split; simpl; rewrite widen_add_vars; [apply tdok_widen; assumption | apply tcacheok_widen; assumption].
    + intros x _. reflexivity.
    + intros x r Hs. simpl t_s. pose proof (tslot_ok s x r B Hs) as Hr. rewrite widen_add_vars. split.
      * apply ref_ok_widen. exact Hr.
      * intros av. apply tfun_of_widen; assumption.
    + exact I.
    + simpl. split; [|split; [reflexivity | split; [reflexivity | split; reflexivity]]]. rewrite widen_add_vars. apply widen_nlevels.
Qed.

(** ** runs *)

Theorem trun_ok : forall ops st, TInv st -> tops_pre_b gt C cget cadd cempty st ops = true ->
  exists st', trun st ops = Some st' /\ TInv st'.
Proof.
  induction ops as [|o r IH]; intros st I P; simpl in *.
  - exists st. auto.
  - apply andb_true_iff in P. destruct P as [Po Pr].
    destruct (tstep_ok st o I Po) as [st1 [E1 [I1 _]]]. rewrite E1 in *. apply IH; assumption.
Qed.

(** a well-formed request is never refused: the run can only stop at a request whose
    precondition fails (an empty operand slot, an unknown variable) *)
Theorem trun_never_stuck : forall ops st, TInv st -> trun st ops = None ->
  exists pre o post st1, ops = pre ++ o :: post /\ trun st pre = Some st1 /\ TInv st1 /\
                         top_pre_b C st1 o = false.
Proof.
  induction ops as [|o r IH]; intros st I E; simpl in E; [discriminate|].
  destruct (top_pre_b C st o) eqn:Po.
  - destruct (tstep_ok st o I Po) as [st1 [E1 [I1 _]]]. rewrite E1 in E.
    destruct (IH st1 I1 E) as [pre [o' [post [st2 [Eo [Er [I2 P2]]]]]]].
    exists (o :: pre), o', post, st2. split; [rewrite Eo; reflexivity|]. split; [simpl; rewrite E1; exact Er | auto].
  - exists [], o, r, st. simpl. auto.
Qed.

(** states reachable from a fresh manager by well-formed requests *)
Inductive treach (n : nat) : tstate -> Prop :=
| treach_init : treach n (tinit n)
| treach_step : forall st o st', treach n st -> top_pre st o -> tstep st o = Some st' -> treach n st'.

Lemma tdd_empty_ok : forall n, TdOK (tdd_empty n).
Proof.
  intros n. constructor.
  - apply empty_wf_gen; repeat constructor; simpl; intuition discriminate.
  - reflexivity.
  - intros t c. unfold term_val. cbn [s_terms tdd_empty assoc_N].
    destruct (N.eqb 0 t); [intros [= <-]; lia|].
    destruct (N.eqb 1 t); [intros [= <-]; lia|].
    destruct (N.eqb 2 t); [intros [= <-]; lia | discriminate].
  - intros [| |]; [exists 0%N | exists 1%N | exists 2%N]; reflexivity.
Qed.

Theorem tinit_inv : forall n, TInv (tinit n).
Proof.
  intros n. split; simpl; [apply tdd_empty_ok | apply tcacheok_empty].
Qed.

Theorem treach_inv : forall n st, treach n st -> TInv st.
Proof.
  intros n st R. induction R as [|st o st' R IH P E]; [apply tinit_inv|].
  destruct (tstep_ok st o IH P) as [st1 [E1 [I1 _]]]. rewrite E in E1. injection E1 as <-. exact I1.
Qed.

(** C03 along histories: after ANY history the executable checkers accept the table *)
Theorem thist_ok_b : forall n st, treach n st ->
  td_ok_b (t_s C st) = true /\ td_wf3_b (t_s C st) = true /\ wf_full_b (t_s C st) = true.
Proof.
  intros n st R. destruct (treach_inv n st R) as [B _].
  pose proof (proj2 (td_ok_b_spec _) B) as Hb. split; [exact Hb|]. split.
  - rewrite td_wf3_b_ok_b. exact Hb.
  - apply td_ok_wf_full. exact Hb.
Qed.

(** C01 along histories: two slots hold the same edge IFF they denote the same three-valued
    function of the variables *)
Theorem tinv_canonical : forall st, TInv st ->
  forall x y ex ey, hget (s_handles (t_s C st)) x = Some ex -> hget (s_handles (t_s C st)) y = Some ey ->
  (ex = ey <-> forall av, tfun_of (t_s C st) (eref ex) av = tfun_of (t_s C st) (eref ey) av).
Proof.
  intros st [B _] x y ex ey Ex Ey.
  apply (td_canon_handles_tfun (t_s C st) B (x, ex) (y, ey)); apply hget_In; assumption.
Qed.

Theorem thist_canonical : forall n st, treach n st ->
  forall x y ex ey, hget (s_handles (t_s C st)) x = Some ex -> hget (s_handles (t_s C st)) y = Some ey ->
  (ex = ey <-> forall av, tfun_of (t_s C st) (eref ex) av = tfun_of (t_s C st) (eref ey) av).
Proof. intros n st R. apply tinv_canonical. apply (treach_inv n st R). Qed.

(** ... and IFF their finite value tables agree (what the driver compares) *)
Theorem thist_canonical_vtable : forall n st, treach n st ->
  forall x y ex ey, hget (s_handles (t_s C st)) x = Some ex -> hget (s_handles (t_s C st)) y = Some ey ->
  (ex = ey <-> td_vtable (t_s C st) (eref ex) = td_vtable (t_s C st) (eref ey)).
Proof.
  intros n st R x y ex ey Ex Ey. destruct (treach_inv n st R) as [B _].
  apply (td_canon_handles (t_s C st) B (x, ex) (y, ey)); apply hget_In; assumption.
Qed.

(** the result of a call is determined by the operands' functions: every slot that holds
    the destination's function holds the destination's edge *)
Theorem thist_result_unique : forall st o st', TInv st -> top_pre st o -> tstep st o = Some st' ->
  forall d y ed ey, hget (s_handles (t_s C st')) d = Some ed -> hget (s_handles (t_s C st')) y = Some ey ->
  (forall av, tfun_of (t_s C st') (eref ey) av = tfun_of (t_s C st') (eref ed) av) -> ey = ed.
Proof.
  intros st o st' I P E d y ed ey Ed Ey A.
  destruct (tstep_ok st o I P) as [st1 [E1 [I1 _]]]. rewrite E in E1. injection E1 as <-.
  apply (tinv_canonical st' I1 y d ey ed Ey Ed). exact A.
Qed.

(** C05 along histories: right after a collection every stored node is reachable from a
    handle (nothing unreferenced is left), no handle lost its node, every function is kept *)
Theorem thist_gc : forall st st', TInv st -> tstep st TGc = Some st' ->
  TInv st' /\ s_handles (t_s C st') = s_handles (t_s C st) /\
  (forall id nd, find_node (t_s C st') id = Some nd ->
     find_node (t_s C st) id = Some nd /\ reachable (t_s C st') (handle_refs (t_s C st')) (RN id)) /\
  (forall id nd, find_node (t_s C st) id = Some nd -> reachable (t_s C st) (handle_refs (t_s C st)) (RN id) ->
     find_node (t_s C st') id = Some nd) /\
  (forall x r, tslot (t_s C st) x = Some r ->
     ref_ok (t_s C st') r /\ forall av, tfun_of (t_s C st') r av = tfun_of (t_s C st) r av).
Proof.
  intros st st' I E. destruct (tstep_ok st TGc I eq_refl) as [st1 [E1 [I1 [[_ [F2 _]] Po]]]].
  rewrite E in E1. injection E1 as <-. destruct Po as [X [Hh R]].
  split; [exact I1|]. split; [exact Hh|]. split; [|split; [|exact F2]].
  - intros id nd Ef. split; [apply (ext_nodes _ _ X id nd Ef) | apply (R id nd Ef)].
  - intros id nd Ef Rc. injection E as <-. simpl.
    pose proof (gc_model_collected (t_s C st) (to_wf _ (proj1 I))) as Cg.
    apply (co_nodes _ _ Cg). auto.
Qed.

(** dropping every handle and collecting leaves an empty store *)
Theorem thist_dropall_gc : forall st st', TInv st -> s_handles (t_s C st) = [] -> tstep st TGc = Some st' ->
  forall id, find_node (t_s C st') id = None.
Proof.
  intros st st' I Hh E id. destruct (thist_gc st st' I E) as [_ [Hh' [A _]]].
  destruct (find_node (t_s C st') id) as [nd|] eqn:Ef; [|reflexivity]. exfalso.
  destruct (A id nd Ef) as [_ R]. unfold handle_refs in R. rewrite Hh', Hh in R. exact (reachable_nil _ _ R).
Qed.

End Steps.

(** * The replayed instance ([tddh_step] of Mgr/TddHist.v: empty association-list cache, operands
    never swapped, seeded with any TdOK table, e.g. the lifted snapshot of a real manager) *)
Theorem tddh_step_ok : forall s o, TdOK s -> top_pre_b acache (mkT acache s []) o = true ->
  exists st', tstep (fun _ _ => false) acache ac_get ac_add [] (mkT acache s []) o = Some st' /\
    tddh_step s o = Some (t_s acache st') /\ TInv acache ac_get st' /\
    tframe acache (mkT acache s []) o st' /\ tpost acache (mkT acache s []) o st'.
Proof.
  intros s o B P.
  assert (I : TInv acache ac_get (mkT acache s [])) by (split; [exact B | apply tac_empty_ok]).
  destruct (tstep_ok (fun _ _ => false) acache ac_get ac_add [] ac_lossy (fun _ _ => eq_refl) _ o I P)
    as [st' [E [I' [F Po]]]].
  exists st'. split; [exact E|]. split; [unfold tddh_step; rewrite E; reflexivity|]. auto.
Qed.

(** the model refuses a call only if its precondition fails (empty operand slot, unknown variable) *)
Theorem tddh_step_none : forall s o, TdOK s -> tddh_step s o = None -> top_pre_b acache (mkT acache s []) o = false.
Proof.
  intros s o B E. destruct (top_pre_b acache (mkT acache s []) o) eqn:P; [|reflexivity].
  destruct (tddh_step_ok s o B P) as [st' [_ [E' _]]]. congruence.
Qed.
