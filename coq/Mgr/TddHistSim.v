(** Mgr/TddHistSim.v — package TDDx: two TDD managers in ANY two configurations (operand
    order of [terminal_bin], apply-cache implementation incl. "none" / capacity 1 / a cache
    cleared before every call, its contents) fed the same client calls are observationally
    equal (C06: cache transparency; C20: build configurations; at the level of whole
    histories incl. collections and add_vars).

    [tsim st1 st2]: both invariants, the same variable order, and slot by slot: both empty or
    both occupied by references denoting the same three-valued function of the variables.
    [tsim_step], [tsim_run]: preserved by every well-formed call / call list from fresh
    managers; [tsim_observe]: same occupied slots, same value of every slot under every
    assignment, and "slot x == slot y" has the same answer on both sides.
    No axioms. *)
From Coq Require Import List NArith PArith Bool Arith Lia FMapPositive.
From OxiVerif Require Import DD.Table DD.TableExtra DD.TableProofs DD.Build DD.BuildProofs DD.Apply DD.ApplyProofs
  DD.Cache DD.CacheProofs DD.ConfigApply DD.Tdd DD.ApplyTdd DD.ApplyTddBase DD.ApplyTddProofs DD.ApplyTddIte DD.ApplyTddTop
  DD.TddAudit DD.TddAuditProofs Mgr.History Mgr.HistoryBase Mgr.OomGc Mgr.HistoryGc Mgr.TddHist Mgr.TddHistProofs.
Import ListNotations.

(** the level function of a reference, read off its function of the variables *)
Lemma den_var_asg : forall s r phi a, TdOK s -> DenT s r phi -> phi a = tfun_of s r (var_asg s a).
Proof.
  intros s r phi a B D. rewrite (tfun_of_den s r phi D). apply tcode_inj.
  assert (X : Some (tcode (phi a)) = Some (tcode (phi (lvl_asg s (var_asg s a))))).
  { rewrite <- (proj2 D a), <- (proj2 D (lvl_asg s (var_asg s a))).
    apply (semk_ext_below s (to_wf s B)). intros l Hl. unfold chc.
    rewrite (lvl_var_asg s a l (to_wf s B) Hl). reflexivity. }
  congruence.
Qed.

Lemma tfun_eq_den : forall s1 s2 r1 r2 phi, TdOK s1 -> TdOK s2 ->
  s_v2l s1 = s_v2l s2 -> DenT s1 r1 phi -> ref_ok s2 r2 ->
  (forall av, tfun_of s1 r1 av = tfun_of s2 r2 av) -> DenT s2 r2 phi.
Proof.
  intros s1 s2 r1 r2 phi B1 B2 Ev D1 H2 A. destruct (dent_exists s2 r2 B2 H2) as [phi2 D2].
  apply (dent_ext s2 r2 phi2 phi D2). intros a.
  rewrite (den_var_asg s2 r2 phi2 a B2 D2), (den_var_asg s1 r1 phi a B1 D1), A.
  unfold var_asg. rewrite Ev. reflexivity.
Qed.

Lemma den_tfun_eq : forall s1 s2 r1 r2 phi, s_l2v s1 = s_l2v s2 -> DenT s1 r1 phi -> DenT s2 r2 phi ->
  forall av, tfun_of s1 r1 av = tfun_of s2 r2 av.
Proof.
  intros s1 s2 r1 r2 phi El D1 D2 av. rewrite (tfun_of_den s1 r1 phi D1), (tfun_of_den s2 r2 phi D2).
  unfold lvl_asg. rewrite El. reflexivity.
Qed.

(** the root level is determined by the function *)
Lemma rlevel_den_eq : forall s1 s2 r1 r2 phi, TdOK s1 -> TdOK s2 -> nlevels s1 = nlevels s2 ->
  DenT s1 r1 phi -> DenT s2 r2 phi -> rlevel s1 r1 = rlevel s2 r2.
Proof.
  intros s1 s2 r1 r2 phi B1 B2 En D1 D2.
  pose proof (dent_indep s1 r1 phi (to_wf s1 B1) D1) as I1. pose proof (dent_indep s2 r2 phi (to_wf s2 B2) D2) as I2.
  pose proof (rlevel_le s1 (to_wf s1 B1) r1) as L1. pose proof (rlevel_le s2 (to_wf s2 B2) r2) as L2.
  pose proof (dent_level s1 r1 phi (rlevel s2 r2) B1 D1 ltac:(lia) I2).
  pose proof (dent_level s2 r2 phi (rlevel s1 r1) B2 D2 ltac:(lia) I1). lia.
Qed.

Section Sim.
Variables gt1 gt2 : ref -> ref -> bool.
Variables C1 C2 : Type.
Variable cget1 : C1 -> N -> list ref -> option ref.
Variable cadd1 : C1 -> N -> list ref -> ref -> C1.
Variable cget2 : C2 -> N -> list ref -> option ref.
Variable cadd2 : C2 -> N -> list ref -> ref -> C2.
Variable ce1 : C1.
Variable ce2 : C2.
Hypothesis L1 : lossy cget1 cadd1.
Hypothesis L2 : lossy cget2 cadd2.
Hypothesis E1 : forall k a, cget1 ce1 k a = None.
Hypothesis E2 : forall k a, cget2 ce2 k a = None.

Notation step1 := (tstep gt1 C1 cget1 cadd1 ce1).
Notation step2 := (tstep gt2 C2 cget2 cadd2 ce2).
Notation run1 := (trun gt1 C1 cget1 cadd1 ce1).
Notation run2 := (trun gt2 C2 cget2 cadd2 ce2).
Notation Inv1 := (TInv C1 cget1).
Notation Inv2 := (TInv C2 cget2).
Notation ok1 := (tstep_ok gt1 C1 cget1 cadd1 ce1 L1 E1).
Notation ok2 := (tstep_ok gt2 C2 cget2 cadd2 ce2 L2 E2).

Definition slot_rel (s1 s2 : snap) (x : N) : Prop :=
  match tslot s1 x, tslot s2 x with
  | Some r1, Some r2 => forall av, tfun_of s1 r1 av = tfun_of s2 r2 av
  | None, None => True
  | _, _ => False
  end.

Definition tsim (st1 : tstate C1) (st2 : tstate C2) : Prop :=
  Inv1 st1 /\ Inv2 st2 /\
  s_l2v (t_s C1 st1) = s_l2v (t_s C2 st2) /\ s_v2l (t_s C1 st1) = s_v2l (t_s C2 st2) /\
  forall x, slot_rel (t_s C1 st1) (t_s C2 st2) x.

Lemma tsim_nlevels : forall st1 st2, tsim st1 st2 -> nlevels (t_s C1 st1) = nlevels (t_s C2 st2).
Proof. intros st1 st2 [_ [_ [El _]]]. unfold nlevels. rewrite El. reflexivity. Qed.

Lemma tsim_occupied : forall st1 st2 x, tsim st1 st2 -> occupied (t_s C1 st1) x = occupied (t_s C2 st2) x.
Proof.
  intros st1 st2 x [_ [_ [_ [_ R]]]]. specialize (R x). unfold slot_rel, tslot in R. unfold occupied.
  destruct (hget (s_handles (t_s C1 st1)) x), (hget (s_handles (t_s C2 st2)) x); tauto.
Qed.

Lemma tsim_pre : forall st1 st2 o, tsim st1 st2 -> top_pre_b C2 st2 o = top_pre_b C1 st1 o.
Proof.
  intros st1 st2 o S. pose proof (tsim_nlevels st1 st2 S) as En.
  destruct o; simpl; rewrite <- ?En, <- ?(tsim_occupied st1 st2 _ S); reflexivity.
Qed.

(** slots that are not destinations stay related *)
Lemma frame_slot_rel : forall (st1 st1' : tstate C1) (st2 st2' : tstate C2) o x,
  tframe C1 st1 o st1' -> tframe C2 st2 o st2' -> ~ In x (tdsts o) ->
  slot_rel (t_s C1 st1) (t_s C2 st2) x -> slot_rel (t_s C1 st1') (t_s C2 st2') x.
Proof.
  intros st1 st1' st2 st2' o x [F1 [G1 _]] [F2 [G2 _]] Hx R. unfold slot_rel, tslot in *.
  rewrite (F1 x Hx), (F2 x Hx).
  destruct (hget (s_handles (t_s C1 st1)) x) as [e1|] eqn:H1, (hget (s_handles (t_s C2 st2)) x) as [e2|] eqn:H2; auto.
  intros av.
  assert (S1 : tslot (t_s C1 st1) x = Some (eref e1)) by (unfold tslot; rewrite H1; reflexivity).
  assert (S2 : tslot (t_s C2 st2) x = Some (eref e2)) by (unfold tslot; rewrite H2; reflexivity).
  rewrite (proj2 (G1 x _ S1) av), (proj2 (G2 x _ S2) av). apply R.
Qed.

Lemma slot_rel_some : forall s1 s2 x r1, slot_rel s1 s2 x -> tslot s1 x = Some r1 ->
  exists r2, tslot s2 x = Some r2 /\ forall av, tfun_of s1 r1 av = tfun_of s2 r2 av.
Proof.
  intros s1 s2 x r1 R S1. unfold slot_rel in R. rewrite S1 in R.
  destruct (tslot s2 x) as [r2|]; [exists r2; auto | destruct R].
Qed.

Lemma order_after : forall (st1 st1' : tstate C1) (st2 st2' : tstate C2) o,
  tsim st1 st2 -> tframe C1 st1 o st1' -> tframe C2 st2 o st2' ->
  tpost C1 st1 o st1' -> tpost C2 st2 o st2' ->
  s_l2v (t_s C1 st1') = s_l2v (t_s C2 st2') /\ s_v2l (t_s C1 st1') = s_v2l (t_s C2 st2').
Proof.
  intros st1 st1' st2 st2' o S [_ [_ O1]] [_ [_ O2]] P1 P2.
  pose proof (tsim_nlevels st1 st2 S) as En. destruct S as [_ [_ [El [Ev _]]]].
  assert (G : (s_l2v (t_s C1 st1') = s_l2v (t_s C1 st1) /\ s_v2l (t_s C1 st1') = s_v2l (t_s C1 st1)) ->
              (s_l2v (t_s C2 st2') = s_l2v (t_s C2 st2) /\ s_v2l (t_s C2 st2') = s_v2l (t_s C2 st2)) ->
              s_l2v (t_s C1 st1') = s_l2v (t_s C2 st2') /\ s_v2l (t_s C1 st1') = s_v2l (t_s C2 st2')).
  { intros [A1 A2] [A3 A4]. rewrite A1, A2, A3, A4. auto. }
  destruct o; try (apply G; assumption).
  simpl in P1, P2. destruct P1 as [_ [_ [A1 [A2 _]]]], P2 as [_ [_ [A3 [A4 _]]]].
  rewrite A1, A2, A3, A4, El, Ev, En. auto.
Qed.

Lemma sim_assemble : forall (st1 st1' : tstate C1) (st2 st2' : tstate C2) o,
  tsim st1 st2 -> Inv1 st1' -> Inv2 st2' ->
  tframe C1 st1 o st1' -> tframe C2 st2 o st2' -> tpost C1 st1 o st1' -> tpost C2 st2 o st2' ->
  (forall x, In x (tdsts o) -> slot_rel (t_s C1 st1') (t_s C2 st2') x) ->
  tsim st1' st2'.
Proof.
  intros st1 st1' st2 st2' o S I1 I2 F1 F2 P1 P2 D.
  destruct (order_after st1 st1' st2 st2' o S F1 F2 P1 P2) as [El Ev].
  split; [exact I1|]. split; [exact I2|]. split; [exact El|]. split; [exact Ev|].
  intros x. destruct (in_dec N.eq_dec x (tdsts o)) as [Hin|Hn]; [apply D; exact Hin|].
  apply (frame_slot_rel st1 st1' st2 st2' o x F1 F2 Hn). apply S.
Qed.

Lemma slot_rel_intro : forall s1 s2 x r1 r2, tslot s1 x = Some r1 -> tslot s2 x = Some r2 ->
  (forall av, tfun_of s1 r1 av = tfun_of s2 r2 av) -> slot_rel s1 s2 x.
Proof. intros s1 s2 x r1 r2 S1 S2 A. unfold slot_rel. rewrite S1, S2. exact A. Qed.

(** three [put]s in a row *)
Lemma tslot_put3 : forall s dt du de t u e x,
  tslot (put (put (put s dt t) du u) de e) x =
  if N.eqb x de then Some e else if N.eqb x du then Some u else if N.eqb x dt then Some t else tslot s x.
Proof.
  intros s dt du de t u e x.
  destruct (N.eqb_spec x de) as [->|N1]; [apply tslot_put_same|]. rewrite tslot_put_other by exact N1.
  destruct (N.eqb_spec x du) as [->|N2]; [apply tslot_put_same|]. rewrite tslot_put_other by exact N2.
  destruct (N.eqb_spec x dt) as [->|N3]; [apply tslot_put_same|]. apply tslot_put_other. exact N3.
Qed.

Lemma tfun_of_put3 : forall s dt du de t u e r av, TdOK s -> ref_ok s t -> ref_ok s u -> ref_ok s r ->
  tfun_of (put (put (put s dt t) du u) de e) r av = tfun_of s r av.
Proof.
  intros s dt du de t u e r av B Ht Hu Hr.
  pose proof (tdok_put s dt t B Ht) as B1.
  pose proof (tdok_put _ du u B1 (ref_ok_put s dt t u Hu)) as B2.
  rewrite (tfun_of_put _ de e r av B2 (ref_ok_put _ du u r (ref_ok_put s dt t r Hr))),
          (tfun_of_put _ du u r av B1 (ref_ok_put s dt t r Hr)).
  apply (tfun_of_put s dt t r av B Hr).
Qed.

Theorem tsim_step : forall st1 st2 o, tsim st1 st2 -> top_pre_b C1 st1 o = true ->
  exists st1' st2', step1 st1 o = Some st1' /\ step2 st2 o = Some st2' /\ tsim st1' st2'.
Proof.
  intros st1 st2 o S P1. assert (P2 : top_pre_b C2 st2 o = true) by (rewrite (tsim_pre st1 st2 o S); exact P1).
  pose proof S as [I1 [I2 [El [Ev R]]]].
  destruct (ok1 st1 o I1 P1) as [st1' [X1 [I1' [F1 Po1]]]].
  destruct (ok2 st2 o I2 P2) as [st2' [X2 [I2' [F2 Po2]]]].
  exists st1', st2'. split; [exact X1|]. split; [exact X2|].
  apply (sim_assemble st1 st1' st2 st2' o S I1' I2' F1 F2 Po1 Po2). intros x Hx.
  destruct o as [d v|d v|d a|op d a b|d a b cc|dt du de a|d a|a| |k]; simpl in Hx.
  - (* TConst *)
    destruct Hx as [<-|[]].
    destruct Po1 as [r1 [S1 A1]], Po2 as [r2 [S2 A2]]. apply (slot_rel_intro _ _ _ r1 r2 S1 S2).
    intros av. rewrite A1, A2. reflexivity.
  - (* TVar *)
    destruct Hx as [<-|[]].
    destruct Po1 as [r1 [S1 A1]], Po2 as [r2 [S2 A2]]. apply (slot_rel_intro _ _ _ r1 r2 S1 S2).
    intros av. rewrite A1, A2. reflexivity.
  - (* TNot *)
    destruct Hx as [<-|[]].
    simpl in P1. destruct (occupied_slot _ _ P1) as [f1 Sf1].
    destruct (slot_rel_some _ _ a f1 (R a) Sf1) as [f2 [Sf2 Af]].
    destruct (Po1 f1 Sf1) as [r1 [S1 A1]]. destruct (Po2 f2 Sf2) as [r2 [S2 A2]].
    apply (slot_rel_intro _ _ _ r1 r2 S1 S2). intros av. rewrite A1, A2, Af. reflexivity.
  - (* TBin *)
    destruct Hx as [<-|[]].
    simpl in P1. apply andb_true_iff in P1. destruct P1 as [Pa Pb].
    destruct (occupied_slot _ _ Pa) as [f1 Sf1]. destruct (occupied_slot _ _ Pb) as [g1 Sg1].
    destruct (slot_rel_some _ _ a f1 (R a) Sf1) as [f2 [Sf2 Af]].
    destruct (slot_rel_some _ _ b g1 (R b) Sg1) as [g2 [Sg2 Ag]].
    destruct (Po1 f1 g1 Sf1 Sg1) as [r1 [S1 A1]]. destruct (Po2 f2 g2 Sf2 Sg2) as [r2 [S2 A2]].
    apply (slot_rel_intro _ _ _ r1 r2 S1 S2). intros av. rewrite A1, A2, Af, Ag. reflexivity.
  - (* TIte *)
    destruct Hx as [<-|[]].
    simpl in P1. apply andb_true_iff in P1. destruct P1 as [P1 Pc]. apply andb_true_iff in P1. destruct P1 as [Pa Pb].
    destruct (occupied_slot _ _ Pa) as [f1 Sf1]. destruct (occupied_slot _ _ Pb) as [g1 Sg1].
    destruct (occupied_slot _ _ Pc) as [h1 Sh1].
    destruct (slot_rel_some _ _ a f1 (R a) Sf1) as [f2 [Sf2 Af]].
    destruct (slot_rel_some _ _ b g1 (R b) Sg1) as [g2 [Sg2 Ag]].
    destruct (slot_rel_some _ _ cc h1 (R cc) Sh1) as [h2 [Sh2 Ah]].
    destruct (Po1 f1 g1 h1 Sf1 Sg1 Sh1) as [r1 [S1 A1]]. destruct (Po2 f2 g2 h2 Sf2 Sg2 Sh2) as [r2 [S2 A2]].
    apply (slot_rel_intro _ _ _ r1 r2 S1 S2). intros av. rewrite A1, A2, Af, Ag, Ah. reflexivity.
  - (* TCof *)
    simpl in P1. destruct (occupied_slot _ _ P1) as [f1 Sf1].
    destruct (slot_rel_some _ _ a f1 (R a) Sf1) as [f2 [Sf2 Af]].
    destruct st1 as [s1 c1], st2 as [s2 c2]. simpl t_s in *. destruct I1 as [B1 O1], I2 as [B2 O2]. simpl in B1, B2.
    pose proof (tslot_ok s1 a f1 B1 Sf1) as Hf1. pose proof (tslot_ok s2 a f2 B2 Sf2) as Hf2.
    destruct (dent_exists s1 f1 B1 Hf1) as [phi D1].
    pose proof (tfun_eq_den s1 s2 f1 f2 phi B1 B2 Ev D1 Hf2 Af) as D2.
    assert (En : nlevels s1 = nlevels s2) by (unfold nlevels; rewrite El; reflexivity).
    pose proof (rlevel_den_eq s1 s2 f1 f2 phi B1 B2 En D1 D2) as Er.
    pose proof (td_cofactors_ok s1 f1 phi B1 D1) as K1. pose proof (td_cofactors_ok s2 f2 phi B2 D2) as K2.
    unfold tstep in X1, X2. simpl t_s in X1, X2. simpl t_c in X1, X2. rewrite Sf1 in X1. rewrite Sf2 in X2.
    destruct f1 as [t1|id1], f2 as [t2|id2].
    + (* both terminals: nothing is assigned *)
      rewrite K1 in X1. rewrite K2 in X2. injection X1 as <-. injection X2 as <-. apply R.
    + exfalso. destruct K2 as [nd [_ [_ [_ [En2 _]]]]]. simpl in Er. rewrite En2 in Er.
      pose proof (wf_level s2 (to_wf s2 B2) id2 nd En2). lia.
    + exfalso. destruct K1 as [nd [_ [_ [_ [En1 _]]]]]. simpl in Er. rewrite En1 in Er.
      pose proof (wf_level s1 (to_wf s1 B1) id1 nd En1). lia.
    + destruct K1 as [n1 [t1 [u1 [e1 [En1 [Ec1 [Dt1 [Du1 [De1 _]]]]]]]]].
      destruct K2 as [n2 [t2 [u2 [e2 [En2 [Ec2 [Dt2 [Du2 [De2 _]]]]]]]]].
      rewrite Ec1 in X1. rewrite Ec2 in X2. injection X1 as <-. injection X2 as <-. simpl t_s.
      assert (Elv : nlevel n1 = nlevel n2) by (simpl in Er; rewrite En1, En2 in Er; exact Er).
      rewrite <- Elv in Dt2, Du2, De2.
      assert (K : forall r1 r2, ref_ok s1 r1 -> ref_ok s2 r2 ->
                (forall av, tfun_of s1 r1 av = tfun_of s2 r2 av) ->
                forall av, tfun_of (put (put (put s1 dt t1) du u1) de e1) r1 av =
                           tfun_of (put (put (put s2 dt t2) du u2) de e2) r2 av).
      { intros r1 r2 H1 H2 A av.
        rewrite (tfun_of_put3 s1 _ _ _ _ _ _ r1 av B1 (proj1 Dt1) (proj1 Du1) H1),
                (tfun_of_put3 s2 _ _ _ _ _ _ r2 av B2 (proj1 Dt2) (proj1 Du2) H2). apply A. }
      unfold slot_rel. rewrite !tslot_put3.
      destruct (N.eqb x de); [apply (K e1 e2 (proj1 De1) (proj1 De2) (den_tfun_eq s1 s2 e1 e2 _ El De1 De2))|].
      destruct (N.eqb x du); [apply (K u1 u2 (proj1 Du1) (proj1 Du2) (den_tfun_eq s1 s2 u1 u2 _ El Du1 Du2))|].
      destruct (N.eqb x dt); [apply (K t1 t2 (proj1 Dt1) (proj1 Dt2) (den_tfun_eq s1 s2 t1 t2 _ El Dt1 Dt2))|].
      pose proof (R x) as Rx. unfold slot_rel in Rx.
      destruct (tslot s1 x) as [r1|] eqn:S1, (tslot s2 x) as [r2|] eqn:S2; auto.
      apply (K r1 r2 (tslot_ok s1 x r1 B1 S1) (tslot_ok s2 x r2 B2 S2) Rx).
  - (* TClone *)
    destruct Hx as [<-|[]].
    simpl in P1. destruct (occupied_slot _ _ P1) as [f1 Sf1].
    destruct (slot_rel_some _ _ a f1 (R a) Sf1) as [f2 [Sf2 Af]].
    simpl in Po1, Po2. rewrite Sf1 in Po1. rewrite Sf2 in Po2.
    apply (slot_rel_intro _ _ _ f1 f2 Po1 Po2). intros av.
    destruct F1 as [_ [G1 _]], F2 as [_ [G2 _]].
    rewrite (proj2 (G1 a f1 Sf1) av), (proj2 (G2 a f2 Sf2) av). apply Af.
  - (* TDrop *)
    destruct Hx as [<-|[]].
    simpl in Po1, Po2. unfold slot_rel. rewrite Po1, Po2. exact I.
  - destruct Hx.
  - destruct Hx.
Qed.

Theorem tsim_init : forall n, tsim (tinit C1 ce1 n) (tinit C2 ce2 n).
Proof.
  intros n. split; [apply (tinit_inv C1 cget1 ce1 E1)|]. split; [apply (tinit_inv C2 cget2 ce2 E2)|].
  split; [reflexivity|]. split; [reflexivity|]. intros x. exact I.
Qed.

(** the same call list: the first run gets through (all its requests are well-formed) iff the
    second does, and the final states are related *)
Theorem tsim_run : forall ops st1 st2, tsim st1 st2 ->
  tops_pre_b gt1 C1 cget1 cadd1 ce1 st1 ops = true ->
  exists st1' st2', run1 st1 ops = Some st1' /\ run2 st2 ops = Some st2' /\ tsim st1' st2' /\
                    tops_pre_b gt2 C2 cget2 cadd2 ce2 st2 ops = true.
Proof.
  induction ops as [|o r IH]; intros st1 st2 S P; simpl in *.
  - exists st1, st2. auto.
  - apply andb_true_iff in P. destruct P as [Po Pr].
    destruct (tsim_step st1 st2 o S Po) as [a1 [a2 [X1 [X2 S']]]]. rewrite X1 in *. rewrite X2.
    destruct (IH a1 a2 S' Pr) as [b1 [b2 [Y1 [Y2 [S'' Pr2]]]]].
    exists b1, b2. split; [exact Y1|]. split; [exact Y2|]. split; [exact S''|].
    rewrite (tsim_pre st1 st2 o S), Po. exact Pr2.
Qed.

(** what related states have in common, in observable terms: the same occupied slots, the
    same value of every slot under every three-valued assignment of the variables, the same
    value tables, and [slot x == slot y] answers the same *)
Theorem tsim_observe : forall st1 st2, tsim st1 st2 ->
  (forall x, occupied (t_s C1 st1) x = occupied (t_s C2 st2) x) /\
  (forall x r1 r2, tslot (t_s C1 st1) x = Some r1 -> tslot (t_s C2 st2) x = Some r2 ->
     (forall av, tfun_of (t_s C1 st1) r1 av = tfun_of (t_s C2 st2) r2 av) /\
     td_vtable (t_s C1 st1) r1 = td_vtable (t_s C2 st2) r2) /\
  (forall x y e1 e1' e2 e2',
     hget (s_handles (t_s C1 st1)) x = Some e1 -> hget (s_handles (t_s C1 st1)) y = Some e1' ->
     hget (s_handles (t_s C2 st2)) x = Some e2 -> hget (s_handles (t_s C2 st2)) y = Some e2' ->
     (e1 = e1' <-> e2 = e2')).
Proof.
  intros st1 st2 S. pose proof S as [I1 [I2 [El [Ev R]]]].
  assert (Fn : forall x r1 r2, tslot (t_s C1 st1) x = Some r1 -> tslot (t_s C2 st2) x = Some r2 ->
                forall av, tfun_of (t_s C1 st1) r1 av = tfun_of (t_s C2 st2) r2 av).
  { intros x r1 r2 S1 S2. pose proof (R x) as Rx. unfold slot_rel in Rx. rewrite S1, S2 in Rx. exact Rx. }
  split; [intros x; apply (tsim_occupied st1 st2 x S)|]. split.
  - intros x r1 r2 S1 S2. split; [apply (Fn x r1 r2 S1 S2)|].
    unfold td_vtable. assert (En : nlevels (t_s C1 st1) = nlevels (t_s C2 st2)) by (apply (tsim_nlevels st1 st2 S)).
    rewrite En. apply map_ext. intros av.
    rewrite (td_value_tfun _ r1 (proj1 I1) (tslot_ok _ x r1 (proj1 I1) S1)),
            (td_value_tfun _ r2 (proj1 I2) (tslot_ok _ x r2 (proj1 I2) S2)), (Fn x r1 r2 S1 S2). reflexivity.
  - intros x y e1 e1' e2 e2' H1 H1' H2 H2'.
    rewrite (tinv_canonical C1 cget1 st1 I1 x y e1 e1' H1 H1'), (tinv_canonical C2 cget2 st2 I2 x y e2 e2' H2 H2').
    assert (Sx1 : tslot (t_s C1 st1) x = Some (eref e1)) by (unfold tslot; rewrite H1; reflexivity).
    assert (Sy1 : tslot (t_s C1 st1) y = Some (eref e1')) by (unfold tslot; rewrite H1'; reflexivity).
    assert (Sx2 : tslot (t_s C2 st2) x = Some (eref e2)) by (unfold tslot; rewrite H2; reflexivity).
    assert (Sy2 : tslot (t_s C2 st2) y = Some (eref e2')) by (unfold tslot; rewrite H2'; reflexivity).
    split; intros A av.
    + rewrite <- (Fn x _ _ Sx1 Sx2 av), <- (Fn y _ _ Sy1 Sy2 av). apply A.
    + rewrite (Fn x _ _ Sx1 Sx2 av), (Fn y _ _ Sy1 Sy2 av). apply A.
Qed.

(** histories from fresh managers *)
Theorem thist_config_independent : forall n ops,
  tops_pre_b gt1 C1 cget1 cadd1 ce1 (tinit C1 ce1 n) ops = true ->
  exists st1 st2, run1 (tinit C1 ce1 n) ops = Some st1 /\ run2 (tinit C2 ce2 n) ops = Some st2 /\ tsim st1 st2.
Proof.
  intros n ops P. destruct (tsim_run ops _ _ (tsim_init n) P) as [a [b [X1 [X2 [S _]]]]]. exists a, b. auto.
Qed.

End Sim.

(** instance: the direct-mapped, lossy cache of oxidd-cache (DD/Cache.v) with ANY hash function,
    bucket count and capacity (1, 2, 16, 65536, ...; a collection resets it) against a manager
    without apply cache: the same histories get through and the final states are related *)
Theorem thist_dm_cache_transparent : forall (gt1 gt2 : ref -> ref -> bool) (hash : dm_key -> N) nb cap n ops,
  tops_pre_b gt1 dm_cache (dmr_get hash) (dmr_add hash) (dm_init nb cap) (tinit dm_cache (dm_init nb cap) n) ops = true ->
  exists st1 st2,
    trun gt1 dm_cache (dmr_get hash) (dmr_add hash) (dm_init nb cap) (tinit dm_cache (dm_init nb cap) n) ops = Some st1 /\
    trun gt2 unit nc_get nc_add tt (tinit unit tt n) ops = Some st2 /\
    tsim dm_cache unit (dmr_get hash) nc_get st1 st2.
Proof.
  intros gt1 gt2 hash nb cap n ops P.
  apply (thist_config_independent gt1 gt2 dm_cache unit (dmr_get hash) (dmr_add hash) nc_get nc_add
           (dm_init nb cap) tt (dmr_lossy hash) nc_lossy (dmr_get_init hash nb cap) (fun _ _ => eq_refl) n ops P).
Qed.
