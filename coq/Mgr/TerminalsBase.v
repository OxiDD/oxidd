(** * C05 — basic lemmas about the terminal table of Mgr/Terminals.v
      (lookup, count updates, removal, counting of parent edges and owner tokens) *)

From Coq Require Import List NArith PArith Bool Arith Lia Permutation.
From OxiVerif Require Import DD.Table Mgr.Conc Mgr.ConcBase Mgr.Terminals.
From OxiVerif Require Export Mgr.StepCases.
Import ListNotations.

Arguments N.add : simpl never.
Arguments N.sub : simpl never.
Arguments N.mul : simpl never.

(** ** lookup *)

Lemma tfind_In : forall t x nd, tfind t x = Some nd -> In (x, nd) t.
Proof.
  induction t as [|[i n] r IH]; intros x nd H; simpl in H; [discriminate|].
  destruct (N.eqb i x) eqn:E.
  - apply N.eqb_eq in E. subst. inversion H; subst. left. reflexivity.
  - right. apply IH. exact H.
Qed.

Lemma tfind_None_keys : forall t x, tfind t x = None <-> ~ In x (map fst t).
Proof.
  induction t as [|[i n] r IH]; intros x; simpl.
  - split; [intros _ []|reflexivity].
  - destruct (N.eqb i x) eqn:E.
    + apply N.eqb_eq in E. subst. split; [discriminate|]. intros H. exfalso. apply H. left. reflexivity.
    + apply N.eqb_neq in E. rewrite IH. split.
      * intros H [H1|H1]; [congruence | exact (H H1)].
      * intros H H1. apply H. right. exact H1.
Qed.

Lemma tfind_Some_keys : forall t x nd, tfind t x = Some nd -> In x (map fst t).
Proof. intros t x nd H. apply tfind_In in H. apply (in_map fst) in H. exact H. Qed.

Lemma keys_tfind_Some : forall t x, In x (map fst t) -> exists nd, tfind t x = Some nd.
Proof.
  intros t x H. destruct (tfind t x) as [nd|] eqn:F; [exists nd; reflexivity|].
  apply tfind_None_keys in F. contradiction.
Qed.

Lemma In_tfind : forall t x nd, NoDup (map fst t) -> In (x, nd) t -> tfind t x = Some nd.
Proof.
  induction t as [|[i n] r IH]; intros x nd Hnd Hin; simpl in *; [contradiction|].
  inversion Hnd as [|? ? Hni Hnd']; subst.
  destruct Hin as [Hin|Hin].
  - inversion Hin; subst. rewrite N.eqb_refl. reflexivity.
  - destruct (N.eqb i x) eqn:E.
    + apply N.eqb_eq in E. subst. exfalso. apply Hni. apply (in_map fst) in Hin. exact Hin.
    + apply IH; assumption.
Qed.

(** ** count updates *)

Lemma tfind_t_upd : forall f x t y,
  tfind (t_upd f x t) y =
  if N.eqb x y then match tfind t y with Some nd => Some (mkT (tval nd) (f (trc nd))) | None => None end
  else tfind t y.
Proof.
  induction t as [|[i n] r IH]; intros y; simpl.
  - destruct (N.eqb x y); reflexivity.
  - destruct (N.eqb i x) eqn:E; simpl.
    + apply N.eqb_eq in E. subst i. destruct (N.eqb x y) eqn:E2; reflexivity.
    + destruct (N.eqb i y) eqn:E2.
      * apply N.eqb_eq in E2. subst i. rewrite N.eqb_sym, E. reflexivity.
      * apply IH.
Qed.

Lemma keys_t_upd : forall f x t, map fst (t_upd f x t) = map fst t.
Proof.
  induction t as [|[i n] r IH]; simpl; [reflexivity|].
  destruct (N.eqb i x); simpl; [reflexivity|]. rewrite IH. reflexivity.
Qed.

Lemma vals_t_upd : forall f x t,
  map (fun p => tval (snd p)) (t_upd f x t) = map (fun p => tval (snd p)) t.
Proof.
  induction t as [|[i n] r IH]; simpl; [reflexivity|].
  destruct (N.eqb i x); simpl; [reflexivity|]. rewrite IH. reflexivity.
Qed.

Lemma tterms_t_upd : forall f x t, tterms (t_upd f x t) = tterms t.
Proof.
  unfold tterms. induction t as [|[i n] r IH]; simpl; [reflexivity|].
  destruct (N.eqb i x); simpl; [reflexivity|]. rewrite IH. reflexivity.
Qed.

Lemma length_t_upd : forall f x t, length (t_upd f x t) = length t.
Proof. intros. rewrite <- (map_length fst), keys_t_upd, map_length. reflexivity. Qed.

Lemma tfind_val_t_upd : forall f x t v, tfind_val (t_upd f x t) v = tfind_val t v.
Proof.
  induction t as [|[i n] r IH]; intros v; simpl; [reflexivity|].
  destruct (N.eqb i x); simpl; [reflexivity|]. rewrite IH. reflexivity.
Qed.

Lemma t_upd_upd_id : forall f g x t, (forall n, g (f n) = n) -> t_upd g x (t_upd f x t) = t.
Proof.
  intros f g x t Hfg. induction t as [|[i n] r IH]; simpl; [reflexivity|].
  destruct (N.eqb i x) eqn:E; simpl; rewrite E.
  - simpl. rewrite Hfg. destruct n; reflexivity.
  - rewrite IH. reflexivity.
Qed.

Lemma t_dec_inc : forall x t, t_dec x (t_inc x t) = t.
Proof. intros. apply t_upd_upd_id. intros n. apply N.pred_succ. Qed.

Lemma keys_t_dec_children : forall ch t, map fst (t_dec_children t ch) = map fst t.
Proof.
  induction ch as [|e r IH]; intros t; simpl; [reflexivity|].
  rewrite IH. destruct (eref e); simpl; [apply keys_t_upd|reflexivity].
Qed.

Lemma vals_t_dec_children : forall ch t,
  map (fun p => tval (snd p)) (t_dec_children t ch) = map (fun p => tval (snd p)) t.
Proof.
  induction ch as [|e r IH]; intros t; simpl; [reflexivity|].
  rewrite IH. destruct (eref e); simpl; [apply vals_t_upd|reflexivity].
Qed.

Lemma tterms_t_dec_children : forall ch t, tterms (t_dec_children t ch) = tterms t.
Proof.
  induction ch as [|e r IH]; intros t; simpl; [reflexivity|].
  rewrite IH. destruct (eref e); simpl; [apply tterms_t_upd|reflexivity].
Qed.

Lemma tfind_val_t_dec_children : forall ch t v, tfind_val (t_dec_children t ch) v = tfind_val t v.
Proof.
  induction ch as [|e r IH]; intros t v; simpl; [reflexivity|].
  rewrite IH. destruct (eref e); simpl; [apply tfind_val_t_upd|reflexivity].
Qed.

Lemma t_points_to_spec : forall x e, t_points_to x e = true <-> eref e = RT x.
Proof.
  intros x e. unfold t_points_to. destruct (eref e) as [y|j].
  - rewrite N.eqb_eq. split; [intros; subst; reflexivity | intros H; inversion H; reflexivity].
  - split; [discriminate | intros H; discriminate].
Qed.

(** the decrements of a child list, in one formula (saturating subtraction) *)
Lemma tfind_t_dec_children : forall ch t x,
  tfind (t_dec_children t ch) x =
  match tfind t x with
  | Some nd => Some (mkT (tval nd) (trc nd - N.of_nat (tcnt x ch)))
  | None => None
  end.
Proof.
  induction ch as [|e r IH]; intros t x; simpl.
  - destruct (tfind t x) as [[v c]|]; [|reflexivity]. simpl. f_equal. f_equal. lia.
  - rewrite IH. unfold t_points_to. destruct (eref e) as [y|j]; simpl.
    + unfold t_dec. rewrite tfind_t_upd. rewrite (N.eqb_sym y x).
      destruct (N.eqb x y) eqn:E.
      * destruct (tfind t x) as [[v c]|]; [|reflexivity]. simpl. f_equal. f_equal. lia.
      * destruct (tfind t x); reflexivity.
    + destruct (tfind t x); reflexivity.
Qed.

(** ** removal *)

Lemma tfind_tremove : forall x t y, NoDup (map fst t) ->
  tfind (tremove x t) y = if N.eqb x y then None else tfind t y.
Proof.
  induction t as [|[i n] r IH]; intros y Hnd; simpl.
  - destruct (N.eqb x y); reflexivity.
  - inversion Hnd as [|? ? Hni Hnd']; subst.
    destruct (N.eqb i x) eqn:E.
    + apply N.eqb_eq in E. subst i. destruct (N.eqb x y) eqn:E2.
      * apply N.eqb_eq in E2. subst y. apply tfind_None_keys. exact Hni.
      * reflexivity.
    + simpl. destruct (N.eqb i y) eqn:E2.
      * apply N.eqb_eq in E2. subst i. rewrite N.eqb_sym, E. reflexivity.
      * apply IH. exact Hnd'.
Qed.

Lemma tremove_keys_perm : forall x t nd, tfind t x = Some nd ->
  Permutation (map fst t) (x :: map fst (tremove x t)).
Proof.
  induction t as [|[i n] r IH]; intros nd F; simpl in *; [discriminate|].
  destruct (N.eqb i x) eqn:E.
  - apply N.eqb_eq in E. subst. apply Permutation_refl.
  - simpl. eapply perm_trans; [apply perm_skip; apply (IH nd F)|]. apply perm_swap.
Qed.

Lemma tremove_vals_incl : forall x t v,
  In v (map (fun p => tval (snd p)) (tremove x t)) -> In v (map (fun p => tval (snd p)) t).
Proof.
  induction t as [|[i n] r IH]; intros v H; simpl in *; [exact H|].
  destruct (N.eqb i x); [right; exact H|]. simpl in H. destruct H as [H|H]; [left; exact H|right; auto].
Qed.

Lemma tremove_vals_nodup : forall x t,
  NoDup (map (fun p => tval (snd p)) t) -> NoDup (map (fun p => tval (snd p)) (tremove x t)).
Proof.
  induction t as [|[i n] r IH]; intros H; simpl in *; [exact H|].
  inversion H as [|? ? Hni Hnd]; subst.
  destruct (N.eqb i x); [exact Hnd|]. simpl. constructor; [|apply IH; exact Hnd].
  intros Hin. apply Hni. apply (tremove_vals_incl x r _ Hin).
Qed.

Lemma length_tremove : forall x t nd, tfind t x = Some nd -> S (length (tremove x t)) = length t.
Proof.
  induction t as [|[i n] r IH]; intros nd F; simpl in *; [discriminate|].
  destruct (N.eqb i x); [reflexivity|]. simpl. rewrite (IH nd F). reflexivity.
Qed.

Lemma tremove_absent : forall x t, tfind t x = None -> tremove x t = t.
Proof.
  induction t as [|[i n] r IH]; intros F; simpl in *; [reflexivity|].
  destruct (N.eqb i x); [discriminate|]. rewrite (IH F). reflexivity.
Qed.

(** ** values *)

Lemma tfind_val_Some : forall t v x, tfind_val t v = Some x ->
  exists nd, In (x, nd) t /\ tval nd = v.
Proof.
  induction t as [|[i n] r IH]; intros v x H; simpl in H; [discriminate|].
  destruct (N.eqb (tval n) v) eqn:E.
  - apply N.eqb_eq in E. inversion H; subst. exists n. split; [left; reflexivity|reflexivity].
  - destruct (IH v x H) as [nd [Hin Hv]]. exists nd. split; [right; exact Hin|exact Hv].
Qed.

Lemma tfind_val_None : forall t v, tfind_val t v = None <-> ~ In v (map (fun p => tval (snd p)) t).
Proof.
  induction t as [|[i n] r IH]; intros v; simpl.
  - split; [intros _ []|reflexivity].
  - destruct (N.eqb (tval n) v) eqn:E.
    + apply N.eqb_eq in E. split; [discriminate|]. intros H. exfalso. apply H. left. exact E.
    + apply N.eqb_neq in E. rewrite IH. split.
      * intros H [H1|H1]; [contradiction | exact (H H1)].
      * intros H H1. apply H. right. exact H1.
Qed.

(** with pairwise distinct values the lookup by value finds THE entry with that value *)
Lemma tfind_val_complete : forall t v x nd,
  NoDup (map (fun p => tval (snd p)) t) -> In (x, nd) t -> tval nd = v -> tfind_val t v = Some x.
Proof.
  induction t as [|[i n] r IH]; intros v x nd Hnd Hin Hv; simpl in *; [contradiction|].
  inversion Hnd as [|? ? Hni Hnd']; subst.
  destruct Hin as [Hin|Hin].
  - inversion Hin; subst. rewrite N.eqb_refl. reflexivity.
  - destruct (N.eqb (tval n) (tval nd)) eqn:E.
    + apply N.eqb_eq in E. exfalso. apply Hni. rewrite E.
      apply (in_map (fun p => tval (snd p))) in Hin. exact Hin.
    + eapply IH; eauto.
Qed.

Lemma assoc_tterms : forall t x,
  assoc_N (tterms t) x = match tfind t x with Some nd => Some (tval nd) | None => None end.
Proof.
  unfold tterms. induction t as [|[i n] r IH]; intros x; simpl; [reflexivity|].
  destruct (N.eqb i x); [reflexivity|]. apply IH.
Qed.

(** ** counting child edges *)

Lemma tcnt_app : forall x a b, tcnt x (a ++ b) = tcnt x a + tcnt x b.
Proof. induction a as [|e r IH]; intros b; simpl; [reflexivity|]. rewrite IH. lia. Qed.

Lemma tcnt_pos_iff : forall x ch, 0 < tcnt x ch <-> exists e, In e ch /\ eref e = RT x.
Proof.
  induction ch as [|e r IH]; simpl.
  - split; [lia|intros [e [[] _]]].
  - destruct (t_points_to x e) eqn:P.
    + split; [|lia]. intros _. exists e. split; [left; reflexivity|]. apply t_points_to_spec. exact P.
    + simpl. rewrite IH. split; intros [e' [He Er]].
      * exists e'. split; [right; exact He|exact Er].
      * destruct He as [He|He]; [|eauto]. subst e'. apply t_points_to_spec in Er. congruence.
Qed.

Lemma tcnt_pos_In : forall x ch, 0 < tcnt x ch -> exists e, In e ch /\ eref e = RT x.
Proof. apply tcnt_pos_iff. Qed.

Lemma In_tcnt_pos : forall x ch e, In e ch -> eref e = RT x -> 0 < tcnt x ch.
Proof. intros x ch e He Er. apply tcnt_pos_iff. eauto. Qed.

Lemma tcnt_zero_iff : forall x ch, tcnt x ch = 0 <-> forall e, In e ch -> eref e <> RT x.
Proof.
  intros x ch. split.
  - intros Z e He Er. pose proof (In_tcnt_pos x ch e He Er). lia.
  - intros H. destruct (tcnt x ch) eqn:C; [reflexivity|].
    destruct (tcnt_pos_In x ch) as [e [He Er]]; [lia|]. exfalso. eapply H; eauto.
Qed.

Lemma tparents_pos_iff : forall t x,
  0 < tparents t x <-> exists j nd e, In (j, nd) t /\ In e (cch nd) /\ eref e = RT x.
Proof.
  induction t as [|[i n] r IH]; intros x; simpl.
  - split; [lia|intros [j [nd [e [[] _]]]]].
  - split.
    + intros H. destruct (tcnt x (cch n)) eqn:C.
      * destruct (proj1 (IH x)) as [j [nd [e [Hj He]]]]; [lia|]. exists j, nd, e. split; [right; exact Hj|exact He].
      * destruct (tcnt_pos_In x (cch n)) as [e [He Er]]; [lia|]. exists i, n, e. auto.
    + intros [j [nd [e [[Hj|Hj] [He Er]]]]].
      * inversion Hj; subst. pose proof (In_tcnt_pos x _ e He Er). lia.
      * assert (0 < tparents r x) by (apply IH; eauto 6). lia.
Qed.

Lemma tparents_pos_In : forall t x, 0 < tparents t x ->
  exists j nd e, In (j, nd) t /\ In e (cch nd) /\ eref e = RT x.
Proof. apply tparents_pos_iff. Qed.

Lemma In_tparents_pos : forall t x j nd e, In (j, nd) t -> In e (cch nd) -> eref e = RT x ->
  0 < tparents t x.
Proof. intros t x j nd e Hj He Er. apply tparents_pos_iff. eauto 6. Qed.

Lemma tparents_zero_iff : forall t x,
  tparents t x = 0 <-> forall j nd e, In (j, nd) t -> In e (cch nd) -> eref e <> RT x.
Proof.
  intros t x. split.
  - intros Z j nd e Hj He Er. pose proof (In_tparents_pos t x j nd e Hj He Er). lia.
  - intros H. destruct (tparents t x) eqn:C; [reflexivity|].
    destruct (tparents_pos_In t x) as [j [nd [e [Hj [He Er]]]]]; [lia|]. exfalso. eapply H; eauto.
Qed.

Lemma tparents_rc_upd : forall f id t x, tparents (rc_upd f id t) x = tparents t x.
Proof.
  induction t as [|[i n] r IH]; intros x; simpl; [reflexivity|].
  destruct (Pos.eqb i id); simpl; [reflexivity|]. rewrite IH. reflexivity.
Qed.

Lemma tparents_dec_children : forall ch t x, tparents (dec_children t ch) x = tparents t x.
Proof.
  induction ch as [|e r IH]; intros t x; simpl; [reflexivity|].
  rewrite IH. destruct (eref e); simpl; [reflexivity|]. apply tparents_rc_upd.
Qed.

Lemma tparents_cremove : forall id t nd x, cfind t id = Some nd ->
  tparents (cremove id t) x + tcnt x (cch nd) = tparents t x.
Proof.
  induction t as [|[i n] r IH]; intros nd x F; simpl in *; [discriminate|].
  destruct (Pos.eqb i id).
  - inversion F; subst. lia.
  - simpl. specialize (IH nd x F). lia.
Qed.

(** ** owner tokens *)

Lemma ttok_eqb_eq : forall a b, ttok_eqb a b = true <-> a = b.
Proof.
  intros [t1 x1] [t2 x2]. unfold ttok_eqb. simpl.
  rewrite andb_true_iff, Nat.eqb_eq, N.eqb_eq. split.
  - intros [H1 H2]. subst. reflexivity.
  - intros H. inversion H. auto.
Qed.

Lemma t_take_tok_owners : forall o own own' x, t_take_tok o own = Some own' ->
  towners own x = towners own' x + (if N.eqb (snd o) x then 1 else 0).
Proof.
  induction own as [|y r IH]; intros own' x H; simpl in H; [discriminate|].
  destruct (ttok_eqb o y) eqn:E.
  - apply ttok_eqb_eq in E. subst y. inversion H; subst. simpl. lia.
  - destruct (t_take_tok o r) as [r'|] eqn:T; [|discriminate]. inversion H; subst.
    simpl. rewrite (IH r' x eq_refl). lia.
Qed.

Lemma t_take_tok_In : forall o own own', t_take_tok o own = Some own' -> In o own.
Proof.
  induction own as [|y r IH]; intros own' H; simpl in H; [discriminate|].
  destruct (ttok_eqb o y) eqn:E.
  - apply ttok_eqb_eq in E. left. congruence.
  - destruct (t_take_tok o r) as [r'|] eqn:T; [|discriminate]. right. eapply IH. reflexivity.
Qed.

Lemma t_take_tok_incl : forall o own own' p, t_take_tok o own = Some own' -> In p own' -> In p own.
Proof.
  induction own as [|y r IH]; intros own' p H Hp; simpl in H; [discriminate|].
  destruct (ttok_eqb o y) eqn:E.
  - inversion H; subst. right. exact Hp.
  - destruct (t_take_tok o r) as [r'|] eqn:T; [|discriminate]. inversion H; subst.
    destruct Hp as [Hp|Hp]; [left; exact Hp|right; eapply IH; eauto].
Qed.

Lemma In_t_take_tok : forall o own, In o own -> exists own', t_take_tok o own = Some own'.
Proof.
  induction own as [|y r IH]; intros H; [destruct H|]. simpl.
  destruct (ttok_eqb o y) eqn:E; [eexists; reflexivity|].
  destruct H as [H|H]; [subst y; assert (X : ttok_eqb o o = true) by (apply ttok_eqb_eq; reflexivity); congruence|].
  destruct (IH H) as [r' Hr]. rewrite Hr. eexists; reflexivity.
Qed.

Lemma t_take_tok_other : forall o own own' p, t_take_tok o own = Some own' -> p <> o ->
  In p own -> In p own'.
Proof.
  induction own as [|y r IH]; intros own' p H Hne Hp; simpl in H; [discriminate|].
  destruct (ttok_eqb o y) eqn:E.
  - apply ttok_eqb_eq in E. subst y. inversion H; subst.
    destruct Hp as [Hp|Hp]; [congruence|exact Hp].
  - destruct (t_take_tok o r) as [r'|] eqn:T; [|discriminate]. inversion H; subst.
    destruct Hp as [Hp|Hp]; [left; exact Hp|right; eapply IH; eauto].
Qed.

Lemma t_take_toks_owners : forall tid ch own own' x, t_take_toks tid ch own = Some own' ->
  towners own x = towners own' x + tcnt x ch.
Proof.
  induction ch as [|e r IH]; intros own own' x H; simpl in H.
  - inversion H; subst. simpl. lia.
  - simpl. unfold t_points_to. destruct (eref e) as [y|j].
    + destruct (t_take_tok (tid, y) own) as [own1|] eqn:T; [|discriminate].
      rewrite (t_take_tok_owners _ _ _ x T). simpl. rewrite (IH own1 own' x H). lia.
    + rewrite (IH own own' x H). lia.
Qed.

Lemma t_take_toks_incl : forall tid ch own own' p, t_take_toks tid ch own = Some own' ->
  In p own' -> In p own.
Proof.
  induction ch as [|e r IH]; intros own own' p H Hp; simpl in H.
  - inversion H; subst. exact Hp.
  - destruct (eref e) as [y|j]; [|eapply IH; eauto].
    destruct (t_take_tok (tid, y) own) as [own1|] eqn:T; [|discriminate].
    eapply t_take_tok_incl; [exact T|]. eapply IH; eauto.
Qed.

Lemma t_take_toks_other : forall tid ch own own' p, t_take_toks tid ch own = Some own' ->
  fst p <> tid -> In p own -> In p own'.
Proof.
  induction ch as [|e r IH]; intros own own' p H Hne Hp; simpl in H.
  - inversion H; subst. exact Hp.
  - destruct (eref e) as [y|j]; [|eapply IH; eauto].
    destruct (t_take_tok (tid, y) own) as [own1|] eqn:T; [|discriminate].
    eapply IH; [exact H|exact Hne|]. eapply t_take_tok_other; [exact T| |exact Hp].
    intros Ep. subst p. apply Hne. reflexivity.
Qed.

Lemma towners_existsb : forall own x,
  existsb (fun o => N.eqb (snd o) x) own = true <-> 0 < towners own x.
Proof.
  induction own as [|y r IH]; intros x; simpl.
  - split; [discriminate|lia].
  - destruct (N.eqb (snd y) x); simpl; [split; [lia|reflexivity]|apply IH].
Qed.

Lemma towners_pos_In : forall own x, 0 < towners own x -> exists o, In o own /\ snd o = x.
Proof.
  intros own x H. apply towners_existsb, existsb_exists in H. destruct H as [o [Ho E]].
  apply N.eqb_eq in E. eauto.
Qed.

Lemma In_towners_pos : forall own x o, In o own -> snd o = x -> 0 < towners own x.
Proof.
  intros own x o Ho Eo. apply towners_existsb, existsb_exists. exists o. split; [exact Ho|].
  apply N.eqb_eq. exact Eo.
Qed.

Lemma towners_zero_iff : forall own x, towners own x = 0 <-> forall o, In o own -> snd o <> x.
Proof.
  intros own x. split.
  - intros Z o Ho Eo. pose proof (In_towners_pos own x o Ho Eo). lia.
  - intros H. destruct (towners own x) eqn:C; [reflexivity|].
    destruct (towners_pos_In own x) as [o [Ho Eo]]; [lia|]. exfalso. eapply H; eauto.
Qed.
