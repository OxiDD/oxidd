(** * C05 — the dynamic terminal manager: whole collections

    [tgc_in] (`DynamicTerminalManager::gc`, any visiting order that covers the table) removes
    EXACTLY the terminals without owner and parent and keeps every other one unchanged
    ([tgc_in_spec], [tgc_exact]); its return value is the number of slots given back to the
    free chain ([tgc_count_free]).  [tcollect] (`Manager::gc`: inner levels top-down, then the
    terminals) is a schedule of collector actions ([tcollect_is_run]), its inner part is
    `collect` of Mgr/ConcGc.v ([tcollect_inner_c]); a terminal survives iff an owned terminal
    edge points to it or it is a child of an inner node reachable from an owned edge
    ([tcollect_exact]); all owner tokens are kept ([tcollect_keeps]); with all handles
    dropped nothing is left and all [cap] slots are on the free chain again
    ([tcollect_all_dropped]).  Histories ([thrun]) keep the invariant. *)

From Coq Require Import List NArith PArith Bool Arith Lia Permutation.
From OxiVerif Require Import DD.Table DD.TableProofs Mgr.Conc Mgr.ConcBase Mgr.ConcProofs Mgr.ConcSnap
  Mgr.ConcGc Mgr.ConcGcProofs Mgr.Terminals Mgr.TerminalsBase Mgr.TerminalsProofs Mgr.TerminalsThms.
Import ListNotations.

Arguments N.add : simpl never.
Arguments N.sub : simpl never.
Arguments N.mul : simpl never.

Lemma fold_left_keeps : forall (A B : Type) (P : A -> Prop) (f : A -> B -> A),
  (forall a b, P a -> P (f a b)) -> forall l a, P a -> P (fold_left f l a).
Proof. intros A B P f Hf. induction l as [|b r IH]; simpl; auto. Qed.

Section Gc.
Variable k : kind.
Variable nl : nat.
Variable cap : nat.

Notation MInv := (MInv k nl cap).
Notation tstep := (tstep k nl).
Notation trun := (trun k nl).
Notation tgc_term_try := (tgc_term_try k nl).
Notation tgc_in := (tgc_in k nl).
Notation tgc := (tgc k nl).
Notation tgc_node_try := (tgc_node_try k nl).
Notation tgc_level := (tgc_level k nl).
Notation tcollect_inner := (tcollect_inner k nl).
Notation tcollect := (tcollect k nl).

Definition is_tgc (a : tact) : Prop := (exists id, a = TIn (AGcNode id)) \/ (exists x, a = TGcTerm x).
Definition tgc_only (sched : list tact) : Prop := forall a, In a sched -> is_tgc a.

(** ** one iteration of the terminal manager's `retain` *)

Lemma tgc_term_try_cases : forall s x,
  (tgc_term_try s x = s /\ forall nd, tfind (ts_tt s) x = Some nd -> trc nd <> 0%N) \/
  (exists nd, tfind (ts_tt s) x = Some nd /\ trc nd = 0%N /\
              tstep s (TGcTerm x) = Some (tgc_term_try s x, TRnone) /\
              tgc_term_try s x = mkTst (ts_c s) (tremove x (ts_tt s)) (x :: ts_free s) (ts_own s)).
Proof.
  intros s x. unfold Terminals.tgc_term_try, Terminals.tstep.
  destruct (tfind (ts_tt s) x) as [nd|] eqn:F.
  - destruct (N.eqb_spec (trc nd) 0) as [Hz|Hnz].
    + right. exists nd. repeat split; auto.
    + left. split; [reflexivity|]. intros nd0 E. inversion E; subst. exact Hnz.
  - left. split; [reflexivity|discriminate].
Qed.

Lemma tgc_term_try_inv : forall s x, MInv s -> MInv (tgc_term_try s x).
Proof.
  intros s x H. destruct (tgc_term_try_cases s x) as [[E _]|[nd [_ [_ [Hs _]]]]]; [rewrite E; exact H|].
  eapply tstep_inv; eauto.
Qed.

Lemma tgc_term_try_frame : forall s x, ts_c (tgc_term_try s x) = ts_c s /\ ts_own (tgc_term_try s x) = ts_own s.
Proof.
  intros s x. destruct (tgc_term_try_cases s x) as [[E _]|[nd [_ [_ [_ E]]]]]; rewrite E; split; reflexivity.
Qed.

Lemma tgc_term_try_find : forall s x y nd, MInv s ->
  (tfind (ts_tt (tgc_term_try s x)) y = Some nd <->
   tfind (ts_tt s) y = Some nd /\ (trc nd <> 0%N \/ y <> x)).
Proof.
  intros s x y nd H. destruct (tgc_term_try_cases s x) as [[E Hnz]|[gn [F [Hz [_ E]]]]]; rewrite E; simpl.
  - split; [|tauto]. intros Fy. split; [exact Fy|].
    destruct (N.eq_dec y x) as [Eq|Ne]; [subst; left; apply Hnz; exact Fy|right; exact Ne].
  - rewrite (tfind_tremove x _ y (MInv_ids _ _ _ _ H)). destruct (N.eqb_spec x y) as [Eq|Ne].
    + subst y. split; [discriminate|]. intros [Fy [Hnz|Hne]]; [|congruence].
      rewrite F in Fy. inversion Fy; subst. contradiction.
    + split; [intros Fy; split; [exact Fy|right; congruence]|tauto].
Qed.

(** ** `DynamicTerminalManager::gc` *)

Lemma tgc_in_inv : forall ord s, MInv s -> MInv (tgc_in s ord).
Proof. intros ord. apply fold_left_keeps. intros s x. apply tgc_term_try_inv. Qed.

Lemma tgc_in_frame : forall ord s, ts_c (tgc_in s ord) = ts_c s /\ ts_own (tgc_in s ord) = ts_own s.
Proof.
  intros ord s. apply (fold_left_keeps _ _ (fun s' => ts_c s' = ts_c s /\ ts_own s' = ts_own s)); auto.
  intros s' x [H1 H2]. destruct (tgc_term_try_frame s' x). split; congruence.
Qed.

Lemma tgc_in_find : forall ord s y nd, MInv s ->
  (tfind (ts_tt (tgc_in s ord)) y = Some nd <->
   tfind (ts_tt s) y = Some nd /\ (trc nd <> 0%N \/ ~ In y ord)).
Proof.
  induction ord as [|x r IH]; intros s y nd H; simpl.
  - split; [intros F; split; [exact F|right; intros []]|tauto].
  - rewrite (IH (tgc_term_try s x) y nd (tgc_term_try_inv s x H)).
    rewrite (tgc_term_try_find s x y nd H). split.
    + intros [[F [Hnz|Hne]] [Hnz2|Hni]]; split; auto. right. intros [E|Hin]; [congruence|contradiction].
    + intros [F [Hnz|Hni]]; [tauto|]. split; [split; [exact F|]|].
      * right. intros E. apply Hni. left. congruence.
      * right. intros Hin. apply Hni. right. exact Hin.
Qed.

(** 8. the terminal manager's collection, entries visited in ANY order that covers the
    table: a terminal is stored afterwards iff it was stored with a count <> 0, i.e. iff an
    owned edge or a stored inner node refers to it; survivors are unchanged (id, value,
    count); inner nodes and all owner tokens are untouched *)
Theorem tgc_in_spec : forall ord s, MInv s -> (forall x, In x (map fst (ts_tt s)) -> In x ord) ->
  MInv (tgc_in s ord) /\ ts_c (tgc_in s ord) = ts_c s /\ ts_own (tgc_in s ord) = ts_own s /\
  (forall x nd, tfind (ts_tt (tgc_in s ord)) x = Some nd <->
                tfind (ts_tt s) x = Some nd /\ trc nd <> 0%N) /\
  (forall x, (exists nd, tfind (ts_tt (tgc_in s ord)) x = Some nd) <->
             (exists nd, tfind (ts_tt s) x = Some nd) /\
             (0 < towners (ts_own s) x \/ 0 < tparents (cn (ts_c s)) x)).
Proof.
  intros ord s H Hcov. destruct (tgc_in_frame ord s) as [Hc Ho].
  assert (Hfind : forall x nd, tfind (ts_tt (tgc_in s ord)) x = Some nd <->
                               tfind (ts_tt s) x = Some nd /\ trc nd <> 0%N).
  { intros x nd. rewrite (tgc_in_find ord s x nd H). split; [|tauto].
    intros [F [Hnz|Hni]]; [tauto|]. exfalso. apply Hni. apply Hcov. eapply tfind_Some_keys; eauto. }
  split; [apply tgc_in_inv; exact H|]. split; [exact Hc|]. split; [exact Ho|]. split; [exact Hfind|].
  intros x. split.
  - intros [nd F]. apply Hfind in F. destruct F as [F Hnz]. split; [eauto|].
    pose proof (mi_rc _ _ _ s H x nd F). lia.
  - intros [[nd F] Hpos]. exists nd. apply Hfind. split; [exact F|].
    pose proof (mi_rc _ _ _ s H x nd F). lia.
Qed.

Theorem tgc_exact : forall s, MInv s ->
  MInv (tgc s) /\ ts_c (tgc s) = ts_c s /\ ts_own (tgc s) = ts_own s /\
  (forall x nd, tfind (ts_tt (tgc s)) x = Some nd <-> tfind (ts_tt s) x = Some nd /\ trc nd <> 0%N) /\
  (forall x, (exists nd, tfind (ts_tt (tgc s)) x = Some nd) <->
             (exists nd, tfind (ts_tt s) x = Some nd) /\
             (0 < towners (ts_own s) x \/ 0 < tparents (cn (ts_c s)) x)).
Proof. intros s H. apply tgc_in_spec; [exact H|auto]. Qed.

(** after it no terminal with count 0 is left, and a second collection does nothing *)
Theorem tgc_no_dead : forall s x nd, MInv s -> tfind (ts_tt (tgc s)) x = Some nd -> trc nd <> 0%N.
Proof. intros s x nd H F. apply (proj1 (proj2 (proj2 (proj2 (tgc_exact s H))))) in F. tauto. Qed.

Lemma tgc_in_fix : forall ord s, (forall x nd, tfind (ts_tt s) x = Some nd -> trc nd <> 0%N) ->
  tgc_in s ord = s.
Proof.
  induction ord as [|x r IH]; intros s Hnz; simpl; [reflexivity|].
  destruct (tgc_term_try_cases s x) as [[E _]|[nd [F [Hz _]]]]; [rewrite E; apply IH; exact Hnz|].
  exfalso. apply (Hnz x nd F Hz).
Qed.

Theorem tgc_idem : forall s, MInv s -> tgc (tgc s) = tgc s.
Proof. intros s H. apply tgc_in_fix. intros x nd F. eapply tgc_no_dead; eauto. Qed.

(** the return value of `gc` = the number of slots pushed onto the free chain *)
Theorem tgc_count_free : forall s, MInv s ->
  length (ts_tt s) = length (ts_tt (tgc s)) + tgc_count k nl s /\
  length (ts_free (tgc s)) = length (ts_free s) + tgc_count k nl s.
Proof.
  intros s H. pose proof (mi_cap _ _ _ s H) as H1.
  pose proof (mi_cap _ _ _ _ (proj1 (tgc_exact s H))) as H2. unfold tgc_count.
  assert (Hle : length (ts_tt (tgc s)) <= length (ts_tt s)).
  { rewrite <- (map_length fst (ts_tt (tgc s))), <- (map_length fst (ts_tt s)).
    apply NoDup_incl_length; [apply (MInv_ids _ _ _ _ (proj1 (tgc_exact s H)))|].
    intros x Hx. destruct (keys_tfind_Some _ _ Hx) as [nd F].
    apply (proj1 (proj2 (proj2 (proj2 (tgc_exact s H))))) in F. eapply tfind_Some_keys. apply F. }
  lia.
Qed.

(** ** the inner part of `Manager::gc` is `collect` of Mgr/ConcGc.v *)

Lemma gc_try_terms : forall t1 t2 c id, gc_try k t1 nl c id = gc_try k t2 nl c id.
Proof. intros. reflexivity. Qed.

Lemma tgc_node_try_cases : forall s id,
  (tgc_node_try s id = s /\ gc_try k (tterms (ts_tt s)) nl (ts_c s) id = ts_c s) \/
  (exists nd c', cfind (cn (ts_c s)) id = Some nd /\
     step k (tterms (ts_tt s)) nl (ts_c s) (AGcNode id) = Some (c', None) /\
     tstep s (TIn (AGcNode id)) = Some (tgc_node_try s id, TRnone) /\
     tgc_node_try s id = mkTst c' (t_dec_children (ts_tt s) (cch nd)) (ts_free s) (ts_own s) /\
     gc_try k (tterms (ts_tt s)) nl (ts_c s) id = c').
Proof.
  intros s id. unfold Terminals.tgc_node_try, Terminals.tstep, gc_try.
  destruct (step k (tterms (ts_tt s)) nl (ts_c s) (AGcNode id)) as [[c' r]|] eqn:Hs.
  - right. pose proof (step_spec _ _ _ _ _ _ _ Hs) as E. inversion E; subst. rewrite Fg.
    eexists _, _. repeat split; eauto.
  - left. split; reflexivity.
Qed.

Lemma tgc_node_try_inv : forall s id, MInv s -> MInv (tgc_node_try s id).
Proof.
  intros s id H. destruct (tgc_node_try_cases s id) as [[E _]|[nd [c' [_ [_ [Hs _]]]]]]; [rewrite E; exact H|].
  eapply tstep_inv; eauto.
Qed.

(** everything about the terminals but their counts *)
Definition same_terms (s s' : tst) : Prop :=
  tterms (ts_tt s') = tterms (ts_tt s) /\ ts_own s' = ts_own s /\ ts_free s' = ts_free s.

(** [gc_try] does not look at the terminals, so any static view [T] of them will do *)
Lemma tgc_node_try_proj : forall T s id,
  ts_c (tgc_node_try s id) = gc_try k T nl (ts_c s) id /\ same_terms s (tgc_node_try s id).
Proof.
  intros T s id. rewrite (gc_try_terms T (tterms (ts_tt s))).
  destruct (tgc_node_try_cases s id) as [[E1 E2]|[nd [c' [_ [_ [_ [E1 E2]]]]]]]; rewrite E1, E2;
    repeat split. apply tterms_t_dec_children.
Qed.

Lemma fold_proj : forall (A : Type) (f : tst -> A -> tst) (g : cst -> A -> cst),
  (forall s x, ts_c (f s x) = g (ts_c s) x /\ same_terms s (f s x)) ->
  forall l s, ts_c (fold_left f l s) = fold_left g l (ts_c s) /\ same_terms s (fold_left f l s).
Proof.
  intros A f g Hf. induction l as [|x r IH]; intros s; simpl.
  - repeat split.
  - destruct (Hf s x) as [P1 [P2 [P3 P4]]]. destruct (IH (f s x)) as [Q1 [Q2 [Q3 Q4]]].
    rewrite Q1, P1. repeat split; congruence.
Qed.

(** 9. the sweep over the levels in `Manager::gc` acts on the inner nodes exactly like
    `collect` of Mgr/ConcGc.v; ids and values of the terminals, the free chain and all owner
    tokens are untouched (only terminal counts go down) *)
Theorem tcollect_inner_c : forall s,
  ts_c (tcollect_inner s) = collect k (tterms (ts_tt s)) nl (ts_c s) /\
  tterms (ts_tt (tcollect_inner s)) = tterms (ts_tt s) /\
  map fst (ts_tt (tcollect_inner s)) = map fst (ts_tt s) /\
  ts_own (tcollect_inner s) = ts_own s /\ ts_free (tcollect_inner s) = ts_free s /\
  (forall x, option_map tval (tfind (ts_tt (tcollect_inner s)) x) = option_map tval (tfind (ts_tt s) x)).
Proof.
  intros s. set (T := tterms (ts_tt s)).
  destruct (fold_proj _ tgc_level (gc_level k T nl)) with (l := seq 0 nl) (s := s)
    as [Hc [Ht [Ho Hf]]].
  { intros s0 l. apply (fold_proj _ tgc_node_try (gc_try k T nl) (tgc_node_try_proj T)). }
  repeat split; auto.
  - apply (f_equal (map fst)) in Ht. unfold tterms in Ht. rewrite !map_map in Ht. exact Ht.
  - intros x. pose proof (assoc_tterms (ts_tt (fold_left tgc_level (seq 0 nl) s)) x) as E.
    rewrite Ht, assoc_tterms in E. symmetry. exact E.
Qed.

Theorem tcollect_inner_inv : forall s, MInv s -> MInv (tcollect_inner s).
Proof.
  intros s. apply fold_left_keeps. intros s0 l. apply fold_left_keeps. intros s1 id. apply tgc_node_try_inv.
Qed.

Theorem tcollect_inv : forall s, MInv s -> MInv (tcollect s).
Proof. intros s H. apply tgc_in_inv. apply tcollect_inner_inv. exact H. Qed.

(** ** `Manager::gc` is a schedule of collector actions *)

Lemma tgc_only_app : forall a b, tgc_only a -> tgc_only b -> tgc_only (a ++ b).
Proof. intros a b Ha Hb x Hx. apply in_app_or in Hx. destruct Hx; auto. Qed.

Lemma fold_gc_run : forall (A : Type) (f : tst -> A -> tst),
  (forall s x, exists sched, trun s sched = Some (f s x) /\ tgc_only sched) ->
  forall l s, exists sched, trun s sched = Some (fold_left f l s) /\ tgc_only sched.
Proof.
  intros A f Hf. induction l as [|x r IH]; intros s; simpl.
  - exists []. split; [reflexivity|intros a []].
  - destruct (Hf s x) as [s1 [R1 O1]]. destruct (IH (f s x)) as [s2 [R2 O2]].
    exists (s1 ++ s2). split; [rewrite trun_app, R1; exact R2 | apply tgc_only_app; assumption].
Qed.

(** one iteration of a `retain` loop: nothing, or the collector's action *)
Lemma try_gc_run : forall s s' a r, is_tgc a -> s' = s \/ tstep s a = Some (s', r) ->
  exists sched, trun s sched = Some s' /\ tgc_only sched.
Proof.
  intros s s' a r Ha [E|Hs].
  - subst. exists []. split; [reflexivity|intros a0 []].
  - exists [a]. split; [simpl; rewrite Hs; reflexivity|]. intros a0 [E|[]]. subst. exact Ha.
Qed.

Theorem tcollect_is_run : forall s,
  exists sched, trun s sched = Some (tcollect s) /\ tgc_only sched.
Proof.
  intros s.
  destruct (fold_gc_run _ tgc_level) with (l := seq 0 nl) (s := s) as [s1 [R1 O1]].
  { intros s0 l. apply fold_gc_run. intros s1 id. apply (try_gc_run s1 _ (TIn (AGcNode id)) TRnone).
    - left. eauto.
    - destruct (tgc_node_try_cases s1 id) as [[E _]|[nd [c' [_ [_ [Hs _]]]]]]; auto. }
  destruct (fold_gc_run _ tgc_term_try) with (l := map fst (ts_tt (tcollect_inner s))) (s := tcollect_inner s)
    as [s2 [R2 O2]].
  { intros s0 x. apply (try_gc_run s0 _ (TGcTerm x) TRnone).
    - right. eauto.
    - destruct (tgc_term_try_cases s0 x) as [[E _]|[nd [_ [_ [Hs _]]]]]; auto. }
  exists (s1 ++ s2). split; [|apply tgc_only_app; assumption].
  rewrite trun_app. fold (tcollect_inner s) in R1. rewrite R1. exact R2.
Qed.

(** ** what `Manager::gc` keeps and frees *)

(** 10. a terminal is stored after the collection iff it was stored before and an owned
    terminal edge points to it or it is a child of an inner node that is reachable from an
    owned edge (= of a surviving inner node); survivors keep id and value *)
Theorem tcollect_exact : forall s x, MInv s ->
  ((exists nd', tfind (ts_tt (tcollect s)) x = Some nd') <->
   (exists nd, tfind (ts_tt s) x = Some nd) /\
   (0 < towners (ts_own s) x \/
    exists j nd e, cfind (cn (ts_c s)) j = Some nd /\ reach_own (ts_c s) j /\
                   In e (cch nd) /\ eref e = RT x)) /\
  (forall nd', tfind (ts_tt (tcollect s)) x = Some nd' ->
     exists nd, tfind (ts_tt s) x = Some nd /\ tval nd' = tval nd).
Proof.
  intros s x H.
  pose proof (tcollect_inner_inv s H) as H1.
  destruct (tcollect_inner_c s) as [Pc [_ [Pk [Po [_ Pv]]]]].
  destruct (tgc_exact _ H1) as [_ [_ [_ [Hf Hex]]]].
  pose proof (mi_c _ _ _ s H) as Hci.
  assert (Hst : (exists nd, tfind (ts_tt (tcollect_inner s)) x = Some nd) <->
                (exists nd, tfind (ts_tt s) x = Some nd)).
  { split; intros [nd F]; apply keys_tfind_Some; apply tfind_Some_keys in F; congruence. }
  assert (Hpar : 0 < tparents (cn (ts_c (tcollect_inner s))) x <->
                 exists j nd e, cfind (cn (ts_c s)) j = Some nd /\ reach_own (ts_c s) j /\
                                In e (cch nd) /\ eref e = RT x).
  { rewrite Pc. split.
    - intros Hp. destruct (tparents_pos_In _ _ Hp) as [j [nd' [e [Hj [He Er]]]]].
      assert (Fj : cfind (cn (collect k (tterms (ts_tt s)) nl (ts_c s))) j = Some nd').
      { apply In_cfind; [|exact Hj].
        apply (ti_nodup _ _ _ _ (ci_tbl _ _ _ _ (collect_inv k _ nl _ Hci))). }
      destruct (collect_exact k _ nl (ts_c s) j Hci) as [Hiff Hsh].
      destruct (proj1 Hiff (ex_intro _ nd' Fj)) as [_ Hre].
      destruct (Hsh nd' Fj) as [nd [F [_ Hch]]].
      exists j, nd, e. rewrite <- Hch. auto.
    - intros [j [nd [e [F [Hre [He Er]]]]]].
      destruct (collect_exact k _ nl (ts_c s) j Hci) as [Hiff Hsh].
      destruct (proj2 Hiff (conj (ex_intro _ nd F) Hre)) as [nd' Fj].
      destruct (Hsh nd' Fj) as [nd0 [F0 [_ Hch]]]. rewrite F in F0. inversion F0; subst nd0.
      eapply In_tparents_pos; [apply cfind_In; exact Fj|rewrite Hch; exact He|exact Er]. }
  split.
  - unfold Terminals.tcollect. rewrite (Hex x), Hst, Po, Hpar. tauto.
  - intros nd' F. unfold Terminals.tcollect in F. apply Hf in F. destruct F as [F _].
    pose proof (Pv x) as E. rewrite F in E. simpl in E.
    destruct (tfind (ts_tt s) x) as [nd|]; [|discriminate]. exists nd. split; [reflexivity|].
    simpl in E. congruence.
Qed.

(** all owner tokens (inner and terminal) survive, every owned terminal edge still points
    to a stored terminal with the same value, and the inner part is `collect` *)
Theorem tcollect_keeps : forall s, MInv s ->
  ts_own (tcollect s) = ts_own s /\ cown (ts_c (tcollect s)) = cown (ts_c s) /\
  ts_c (tcollect s) = collect k (tterms (ts_tt s)) nl (ts_c s) /\
  forall tid x nd, In (tid, x) (ts_own s) -> tfind (ts_tt s) x = Some nd ->
    exists nd', tfind (ts_tt (tcollect s)) x = Some nd' /\ tval nd' = tval nd.
Proof.
  intros s H. destruct (tcollect_inner_c s) as [Pc [_ [_ [Po _]]]].
  destruct (tgc_exact _ (tcollect_inner_inv s H)) as [_ [Gc [Go _]]].
  assert (E1 : ts_own (tcollect s) = ts_own s) by (unfold Terminals.tcollect; congruence).
  assert (E2 : ts_c (tcollect s) = collect k (tterms (ts_tt s)) nl (ts_c s)) by (unfold Terminals.tcollect; congruence).
  split; [exact E1|]. split; [|split; [exact E2|]].
  - rewrite E2. apply (collect_keeps k _ nl _ (mi_c _ _ _ s H)).
  - intros tid x nd Hin F.
    destruct (tcollect_exact s x H) as [Hiff Hval].
    destruct (proj2 Hiff) as [nd' F'].
    { split; [eauto|]. left. eapply In_towners_pos; eauto. }
    exists nd'. split; [exact F'|]. destruct (Hval nd' F') as [nd0 [F0 Hv]]. congruence.
Qed.

Lemma nodup_bounded_perm : forall (l : list N) n, NoDup l -> (forall x, In x l -> (x < N.of_nat n)%N) ->
  length l = n -> Permutation l (map N.of_nat (seq 0 n)).
Proof.
  intros l n Hnd Hb Hl. apply NoDup_Permutation_bis; [exact Hnd|rewrite map_length, seq_length; lia|].
  intros x Hx. apply in_map_iff. exists (N.to_nat x). split; [apply N2Nat.id|].
  apply in_seq. specialize (Hb x Hx). lia.
Qed.

(** 11. all handles dropped: after the collection no inner node and no terminal is left and
    the free chain holds all [cap] slots again (each exactly once) *)
Theorem tcollect_all_dropped : forall s, MInv s -> cown (ts_c s) = [] -> ts_own s = [] ->
  ts_c (tcollect s) = cempty /\ ts_tt (tcollect s) = [] /\ ts_own (tcollect s) = [] /\
  length (ts_free (tcollect s)) = cap /\
  Permutation (ts_free (tcollect s)) (ts_free (tinit cap)).
Proof.
  intros s H Hco Hto.
  destruct (tcollect_keeps s H) as [E1 [_ [E2 _]]].
  pose proof (tcollect_inv s H) as Hi.
  assert (Et : ts_tt (tcollect s) = []).
  { destruct (ts_tt (tcollect s)) as [|[x nd] r] eqn:E; [reflexivity|]. exfalso.
    assert (F : tfind (ts_tt (tcollect s)) x = Some nd) by (rewrite E; simpl; rewrite N.eqb_refl; reflexivity).
    destruct (proj1 (proj1 (tcollect_exact s x H)) (ex_intro _ nd F)) as [_ [Hp|[j [n [e [_ [[o [Ho _]] _]]]]]]].
    - rewrite Hto in Hp. simpl in Hp. lia.
    - rewrite Hco in Ho. destruct Ho. }
  split; [rewrite E2; apply (collect_all_dropped k _ nl _ (mi_c _ _ _ s H) Hco)|].
  split; [exact Et|]. split; [congruence|].
  pose proof (mi_cap _ _ _ _ Hi) as Hc. pose proof (mi_slots _ _ _ _ Hi) as Hs.
  pose proof (mi_bound _ _ _ _ Hi) as Hb. rewrite Et in Hc, Hs, Hb. simpl in Hc, Hs, Hb.
  split; [exact Hc|]. apply nodup_bounded_perm; assumption.
Qed.

(** the return value of `Manager::gc` = removed inner nodes + removed terminals *)
Theorem tcollect_count_spec : forall s,
  tcollect_count k nl s =
  (length (cn (ts_c s)) - length (cn (ts_c (tcollect s)))) +
  (length (ts_tt s) - length (ts_tt (tcollect s))).
Proof.
  intros s. unfold tcollect_count, tgc_count. fold (tcollect s).
  destruct (tcollect_inner_c s) as [_ [_ [Pk _]]].
  destruct (tgc_in_frame (map fst (ts_tt (tcollect_inner s))) (tcollect_inner s)) as [Gc _].
  fold (tgc (tcollect_inner s)) in Gc. fold (tcollect s) in Gc. rewrite Gc.
  rewrite <- (map_length fst (ts_tt (tcollect_inner s))), Pk, map_length. reflexivity.
Qed.

(** ** histories *)

Theorem thrun_inv : forall hist s s', MInv s -> thrun k nl s hist = Some s' -> MInv s'.
Proof.
  induction hist as [|h r IH]; intros s s' H Hr; simpl in Hr.
  - inversion Hr; subst. exact H.
  - destruct h as [a|]; simpl in Hr.
    + destruct (tstep s a) as [[s1 res]|] eqn:Hs; [|discriminate].
      apply (IH s1 s'); [eapply tstep_inv; eauto|exact Hr].
    + apply (IH (tcollect s) s'); [apply tcollect_inv; exact H|exact Hr].
Qed.

(** 12. from the fresh manager, under ANY history (actions of any threads interleaved with
    whole collections): hash consing, no slot lost, counts exact *)
Theorem thistory_inv : forall hist s, thrun k nl (tinit cap) hist = Some s -> MInv s.
Proof. intros hist s. apply thrun_inv. apply MInv_init. Qed.

End Gc.

(** ** the executable checker is sound *)

Lemma nodup_N_b_spec : forall l, nodup_N_b l = true <-> NoDup l.
Proof.
  induction l as [|x r IH]; simpl.
  - split; [constructor|reflexivity].
  - rewrite andb_true_iff, negb_true_iff, IH, NoDup_cons_iff, <- not_true_iff_false, existsb_exists.
    split; intros [A B]; split; auto.
    + intros J. apply A. exists x. split; [exact J|apply N.eqb_refl].
    + intros (y & J & E). apply N.eqb_eq in E. subst y. contradiction.
Qed.

Theorem minv_b_sound : forall k nl cap s, minv_b k nl cap s = true -> MInv k nl cap s.
Proof.
  intros k nl cap s Hb. unfold minv_b in Hb. cbv zeta in Hb. rewrite !andb_true_iff in Hb.
  destruct Hb as [[[[[[[H1 H2] H3] H4] H5] H6] H7] H8].
  constructor.
  - apply cinv_b_spec. exact H1.
  - rewrite forallb_forall in H7. intros o Ho. specialize (H7 o Ho).
    destruct (eref (snd o)) as [x|id]; [discriminate|eauto].
  - apply nodup_N_b_spec. exact H2.
  - apply nodup_N_b_spec. exact H3.
  - rewrite forallb_forall in H4. intros x Hx. apply N.ltb_lt. apply H4. exact Hx.
  - apply Nat.eqb_eq. exact H5.
  - rewrite forallb_forall in H6. intros o Ho. specialize (H6 o Ho).
    destruct (tfind (ts_tt s) (snd o)) as [nd|]; [eauto|discriminate].
  - rewrite forallb_forall in H8. intros x nd F. apply tfind_In in F.
    specialize (H8 _ F). simpl in H8. apply N.eqb_eq. exact H8.
Qed.
