(** * C05 — the dynamic terminal manager: invariant and its preservation

    [MInv] = the invariant [CInv] of Mgr/ConcProofs.v for the inner nodes (w.r.t. the CURRENT
    terminal table) + values pairwise distinct (hash consing) + ids and free chain form a
    duplicate-free partition of the [cap] slots + every owned terminal edge points to a stored
    terminal + terminal counts EXACT = owner tokens + parent edges from stored inner nodes.
    Preserved by every enabled action ([tstep_inv]), hence by every schedule ([trun_inv]). *)

From Coq Require Import List NArith PArith Bool Arith Lia Permutation.
From OxiVerif Require Import Base.ListFacts DD.Table DD.TableProofs Mgr.Conc Mgr.ConcBase Mgr.ConcProofs Mgr.ConcGc
  Mgr.Terminals Mgr.TerminalsBase.
Import ListNotations.

Arguments N.add : simpl never.
Arguments N.sub : simpl never.
Arguments N.mul : simpl never.

Section Proofs.
Variable k : kind.
Variable nl : nat.

(** ** [CInv] only looks at the terminals that are referenced *)

Lemma node_pre_b_terms_ext : forall terms terms' t lvl ch,
  (forall e x, In e ch -> eref e = RT x -> assoc_N terms' x = assoc_N terms x) ->
  node_pre_b k terms' nl t lvl ch = node_pre_b k terms nl t lvl ch.
Proof.
  intros terms terms' t lvl ch H. unfold node_pre_b.
  assert (H3 : forallb (fun e => cref_ok_b terms' t (eref e) && Nat.ltb lvl (crlevel nl t (eref e))) ch =
               forallb (fun e => cref_ok_b terms t (eref e) && Nat.ltb lvl (crlevel nl t (eref e))) ch).
  { apply forallb_ext_in. intros e He. f_equal. unfold cref_ok_b.
    destruct (eref e) as [x|id] eqn:Er; [|reflexivity]. rewrite (H e x He Er). reflexivity. }
  assert (H4 : creduced_b k terms' ch = creduced_b k terms ch).
  { unfold creduced_b. destruct k; try reflexivity.
    destruct ch as [|hi r]; [reflexivity|]. unfold cis_term_with.
    destruct (eref hi) as [x|id] eqn:Er; [|reflexivity].
    rewrite (H hi x (or_introl eq_refl) Er). reflexivity. }
  rewrite H3, H4. reflexivity.
Qed.

Lemma edge_ok_b_terms_ext : forall terms terms' t e,
  (forall x, eref e = RT x -> assoc_N terms' x = assoc_N terms x) ->
  edge_ok_b k terms' t e = edge_ok_b k terms t e.
Proof.
  intros terms terms' t e H. unfold edge_ok_b. f_equal. unfold cref_ok_b.
  destruct (eref e) as [x|id] eqn:Er; [|reflexivity]. rewrite (H x eq_refl). reflexivity.
Qed.

Lemma CInv_terms_ext : forall terms terms' s,
  (forall j nd e x, cfind (cn s) j = Some nd -> In e (cch nd) -> eref e = RT x ->
     assoc_N terms' x = assoc_N terms x) ->
  (forall o x, In o (cown s) -> eref (snd o) = RT x -> assoc_N terms' x = assoc_N terms x) ->
  CInv k terms nl s -> CInv k terms' nl s.
Proof.
  intros terms terms' s Hch Hown H. apply CInv_flat. apply CInv_flat in H.
  destruct H as [H1 [H2 [H3 [H4 H5]]]]. repeat split; auto.
  - intros id nd F. rewrite (node_pre_b_terms_ext terms terms'); [apply (H2 id nd F)|].
    intros e x He Er. apply (Hch id nd e x F He Er).
  - intros o Ho. rewrite (edge_ok_b_terms_ext terms terms'); [apply (H4 o Ho)|].
    intros x Er. apply (Hown o x Ho Er).
Qed.

(** ** the actions of Mgr/Conc.v never put a terminal edge into [cown] *)

Lemma take_toks_incl' : forall tid ch own own' o, take_toks tid ch own = Some own' ->
  In o own' -> In o own.
Proof. exact take_toks_incl. Qed.

Lemma step_cown_inner : forall terms c a c' r,
  (forall o, In o (cown c) -> exists id, eref (snd o) = RN id) ->
  step k terms nl c a = Some (c', r) ->
  forall o, In o (cown c') -> exists id, eref (snd o) = RN id.
Proof.
  intros terms c a c' r H Hs o Ho.
  destruct (step_spec k terms nl c a c' r Hs); simpl in Ho;
    try (destruct Ho as [Ho|Ho]; [subst o; simpl; eauto|]);
    eauto using take_tok_incl, take_toks_incl.
Qed.

(** the actions of Mgr/Conc.v that change tokens only *)
Definition token_act (a : act) : bool :=
  match a with AGoi _ _ _ _ | AGcNode _ => false | _ => true end.

Lemma step_tparents_other : forall terms c a c' r x,
  step k terms nl c a = Some (c', r) -> token_act a = true ->
  tparents (cn c') x = tparents (cn c) x.
Proof.
  intros terms c a c' r x Hs Ha.
  destruct (step_spec k terms nl c a c' r Hs); simpl; try reflexivity; try apply tparents_rc_upd;
    discriminate Ha.
Qed.

(** ** the enabled actions and their effects, one clause per branch of [tstep] *)

Inductive tstep_eff (s : tst) : tact -> tst -> tres -> Prop :=
| TE_goi tid lvl ch fr c' r own'
    (Hc : step k (tterms (ts_tt s)) nl (ts_c s) (AGoi tid lvl ch fr) = Some (c', r))
    (Ht : t_take_toks tid ch (ts_own s) = Some own') :
    tstep_eff s (TIn (AGoi tid lvl ch fr))
      (mkTst c' (match find_shape (cn (ts_c s)) lvl ch with
                 | Some _ => t_dec_children (ts_tt s) ch
                 | None => ts_tt s
                 end) (ts_free s) own') (tres_of r)
| TE_retain tid e x (Er : eref e = RT x) (Hb : t_can_borrow_b nl s e x = true) :
    tstep_eff s (TIn (ARetain tid e))
      (mkTst (ts_c s) (t_inc x (ts_tt s)) (ts_free s) ((tid, x) :: ts_own s)) TRnone
| TE_release tid e x own' (Er : eref e = RT x) (Ht : t_take_tok (tid, x) (ts_own s) = Some own') :
    tstep_eff s (TIn (ARelease tid e)) (mkTst (ts_c s) (t_dec x (ts_tt s)) (ts_free s) own') TRnone
| TE_move tid tid' e x own' (Er : eref e = RT x) (Ht : t_take_tok (tid, x) (ts_own s) = Some own') :
    tstep_eff s (TIn (AMove tid tid' e)) (mkTst (ts_c s) (ts_tt s) (ts_free s) ((tid', x) :: own')) TRnone
| TE_gc_node id c' r nd
    (Hc : step k (tterms (ts_tt s)) nl (ts_c s) (AGcNode id) = Some (c', r))
    (F : cfind (cn (ts_c s)) id = Some nd) :
    tstep_eff s (TIn (AGcNode id))
      (mkTst c' (t_dec_children (ts_tt s) (cch nd)) (ts_free s) (ts_own s)) TRnone
(* on an inner edge, and for the tag flip: the action of Mgr/Conc.v *)
| TE_inner a s' r (Ha : token_act a = true) (Hi : inner_step k nl s a = Some (s', r)) :
    tstep_eff s (TIn a) s' r
| TE_found tid v x (Fv : tfind_val (ts_tt s) v = Some x) :
    tstep_eff s (TGet tid v)
      (mkTst (ts_c s) (t_inc x (ts_tt s)) (ts_free s) ((tid, x) :: ts_own s)) (TRterm x)
| TE_oom tid v (Fv : tfind_val (ts_tt s) v = None) (Hf : ts_free s = []) :
    tstep_eff s (TGet tid v) s TRoom
| TE_new tid v x fr (Fv : tfind_val (ts_tt s) v = None) (Hf : ts_free s = x :: fr) :
    tstep_eff s (TGet tid v)
      (mkTst (ts_c s) ((x, mkT v 1%N) :: ts_tt s) fr ((tid, x) :: ts_own s)) (TRterm x)
| TE_iter tid x nd (F : tfind (ts_tt s) x = Some nd) :
    tstep_eff s (TIterItem tid x)
      (mkTst (ts_c s) (t_inc x (ts_tt s)) (ts_free s) ((tid, x) :: ts_own s)) (TRterm x)
| TE_gc_term x nd (F : tfind (ts_tt s) x = Some nd) (Hz : N.eqb (trc nd) 0 = true) :
    tstep_eff s (TGcTerm x) (mkTst (ts_c s) (tremove x (ts_tt s)) (x :: ts_free s) (ts_own s)) TRnone.

Lemma tstep_spec : forall s a s' r, tstep k nl s a = Some (s', r) -> tstep_eff s a s' r.
Proof.
  intros s a s' r H. destruct a as [[tid lvl ch fr| | | | |]| | |]; unfold tstep in H.
  1: { destruct (step k (tterms (ts_tt s)) nl (ts_c s) (AGoi tid lvl ch fr)) as [[c' r0]|] eqn:Hc; [|discriminate].
       destruct (t_take_toks tid ch (ts_own s)) as [own'|] eqn:Ht; [|discriminate].
       injection H as <- <-. eapply TE_goi; eassumption. }
  all: step_cases H; try (injection H as <- <-); econstructor; solve [eauto].
Qed.

(** ** the invariant *)

Variable cap : nat.

Record MInv (s : tst) : Prop := mkMInv {
  (* the inner nodes: invariant of Mgr/ConcProofs.v w.r.t. the current terminal table
     (in particular: every terminal child edge of a stored node points to a stored terminal) *)
  mi_c : CInv k (tterms (ts_tt s)) nl (ts_c s);
  (* terminal edges are tracked in [ts_own], not in [cown] *)
  mi_cown : forall o, In o (cown (ts_c s)) -> exists id, eref (snd o) = RN id;
  (* hash consing: values pairwise distinct *)
  mi_vals : NoDup (map (fun p => tval (snd p)) (ts_tt s));
  (* ids pairwise distinct and disjoint from the (duplicate-free) free chain ... *)
  mi_slots : NoDup (map fst (ts_tt s) ++ ts_free s);
  (* ... all of them slots of the store ... *)
  mi_bound : forall x, In x (map fst (ts_tt s) ++ ts_free s) -> (x < N.of_nat cap)%N;
  (* ... and no slot is lost *)
  mi_cap : length (ts_tt s) + length (ts_free s) = cap;
  (* every owned terminal edge points to a stored terminal *)
  mi_own : forall o, In o (ts_own s) -> exists nd, tfind (ts_tt s) (snd o) = Some nd;
  (* reference counts are exact *)
  mi_rc : forall x nd, tfind (ts_tt s) x = Some nd ->
      trc nd = N.of_nat (towners (ts_own s) x + tparents (cn (ts_c s)) x)
}.

Lemma MInv_ids : forall s, MInv s -> NoDup (map fst (ts_tt s)).
Proof. intros s H. eapply NoDup_app_l. apply (mi_slots s H). Qed.

Theorem MInv_init : MInv (tinit cap).
Proof.
  constructor; simpl.
  - apply CInv_empty.
  - intros o [].
  - constructor.
  - apply FinFun.Injective_map_NoDup; [|apply seq_NoDup].
    intros a b E. apply Nat2N.inj. exact E.
  - intros x Hx. apply in_map_iff in Hx. destruct Hx as [n [E Hn]]. apply in_seq in Hn. lia.
  - rewrite map_length, seq_length. reflexivity.
  - intros o [].
  - discriminate.
Qed.

Lemma edge_ok_term_stored : forall tt t e x, edge_ok_b k (tterms tt) t e = true -> eref e = RT x ->
  exists tn, tfind tt x = Some tn.
Proof.
  intros tt t e x Hok Er. unfold edge_ok_b in Hok. apply andb_true_iff in Hok. destruct Hok as [Hok _].
  rewrite Er in Hok. simpl in Hok. rewrite assoc_tterms in Hok.
  destruct (tfind tt x) as [tn|]; [eauto|discriminate].
Qed.

Lemma pre_term_stored : forall s lvl ch e x,
  node_pre_b k (tterms (ts_tt s)) nl (cn (ts_c s)) lvl ch = true ->
  In e ch -> eref e = RT x -> exists tn, tfind (ts_tt s) x = Some tn.
Proof.
  intros s lvl ch e x Hp He. apply edge_ok_term_stored with (t := cn (ts_c s)).
  apply (node_pre_b_child_ok k _ nl _ _ _ e Hp He).
Qed.

(** a terminal child edge of a stored node points to a stored terminal *)
Lemma child_term_stored : forall s j nd e x, MInv s -> cfind (cn (ts_c s)) j = Some nd ->
  In e (cch nd) -> eref e = RT x -> exists tn, tfind (ts_tt s) x = Some tn.
Proof.
  intros s j nd e x H F. apply pre_term_stored with (lvl := cl nd).
  apply (ti_pre _ _ _ _ (ci_tbl _ _ _ _ (mi_c s H)) j nd F).
Qed.

(** a stored terminal without owner and parent is referenced nowhere *)
Lemma rc_zero_unreferenced : forall s x nd, MInv s -> tfind (ts_tt s) x = Some nd -> trc nd = 0%N ->
  towners (ts_own s) x = 0 /\ tparents (cn (ts_c s)) x = 0.
Proof. intros s x nd H F Hz. pose proof (mi_rc s H x nd F). lia. Qed.

(** ** preservation, action by action *)

Lemma inv_same_table : forall s c' tt' own',
  MInv s ->
  CInv k (tterms (ts_tt s)) nl c' ->
  (forall o, In o (cown c') -> exists id, eref (snd o) = RN id) ->
  map fst tt' = map fst (ts_tt s) ->
  map (fun p => tval (snd p)) tt' = map (fun p => tval (snd p)) (ts_tt s) ->
  tterms tt' = tterms (ts_tt s) ->
  (forall o, In o own' -> exists nd, tfind (ts_tt s) (snd o) = Some nd) ->
  (forall x nd', tfind tt' x = Some nd' ->
     trc nd' = N.of_nat (towners own' x + tparents (cn c') x)) ->
  MInv (mkTst c' tt' (ts_free s) own').
Proof.
  intros s c' tt' own' H Hc Hco Hk Hv Ht Ho Hrc. constructor; simpl.
  - rewrite Ht. exact Hc.
  - exact Hco.
  - rewrite Hv. apply (mi_vals s H).
  - rewrite Hk. apply (mi_slots s H).
  - rewrite Hk. apply (mi_bound s H).
  - rewrite <- (map_length fst tt'), Hk, map_length. apply (mi_cap s H).
  - intros o Hin. destruct (Ho o Hin) as [nd F].
    apply tfind_Some_keys in F. rewrite <- Hk in F. apply keys_tfind_Some. exact F.
  - exact Hrc.
Qed.

Lemma inv_goi : forall s tid lvl ch fr c' r own', MInv s ->
  step k (tterms (ts_tt s)) nl (ts_c s) (AGoi tid lvl ch fr) = Some (c', r) ->
  t_take_toks tid ch (ts_own s) = Some own' ->
  MInv (mkTst c'
          (match find_shape (cn (ts_c s)) lvl ch with
           | Some _ => t_dec_children (ts_tt s) ch
           | None => ts_tt s
           end) (ts_free s) own').
Proof.
  intros s tid lvl ch fr c' r own' H Hs Ht.
  pose proof (step_inv k _ nl _ _ _ _ (mi_c s H) Hs) as Hc.
  pose proof (step_cown_inner _ _ _ _ _ (mi_cown s H) Hs) as Hco.
  assert (Ho : forall o, In o own' -> exists nd, tfind (ts_tt s) (snd o) = Some nd).
  { intros o Hin. apply (mi_own s H). eapply t_take_toks_incl; eauto. }
  pose proof (step_spec _ _ _ _ _ _ _ Hs) as E. inversion E; subst; rewrite Hf; clear E.
  - apply inv_same_table; auto.
    + apply keys_t_dec_children.
    + apply vals_t_dec_children.
    + apply tterms_t_dec_children.
    + intros x nd' F. rewrite tfind_t_dec_children in F.
      destruct (tfind (ts_tt s) x) as [nd|] eqn:F0; [|discriminate]. inversion F; subst. simpl.
      unfold rc_inc. rewrite tparents_rc_upd, tparents_dec_children.
      pose proof (mi_rc s H x nd F0) as Hr. pose proof (t_take_toks_owners _ _ _ _ x Ht). lia.
  - apply inv_same_table; auto.
    intros x nd F. simpl.
    pose proof (mi_rc s H x nd F) as Hr. pose proof (t_take_toks_owners _ _ _ _ x Ht). lia.
Qed.

Lemma inv_gc_node : forall s id c' r nd, MInv s ->
  step k (tterms (ts_tt s)) nl (ts_c s) (AGcNode id) = Some (c', r) ->
  cfind (cn (ts_c s)) id = Some nd ->
  MInv (mkTst c' (t_dec_children (ts_tt s) (cch nd)) (ts_free s) (ts_own s)).
Proof.
  intros s id c' r nd H Hs F.
  pose proof (step_inv k _ nl _ _ _ _ (mi_c s H) Hs) as Hc.
  pose proof (step_cown_inner _ _ _ _ _ (mi_cown s H) Hs) as Hco.
  pose proof (step_spec _ _ _ _ _ _ _ Hs) as E. inversion E; subst; clear E.
  rewrite F in Fg. inversion Fg; subst gnd.
  apply inv_same_table; auto.
  - apply keys_t_dec_children.
  - apply vals_t_dec_children.
  - apply tterms_t_dec_children.
  - apply (mi_own s H).
  - intros x nd' Fx. rewrite tfind_t_dec_children in Fx.
    destruct (tfind (ts_tt s) x) as [tn|] eqn:Ft; [|discriminate]. inversion Fx; subst. simpl.
    rewrite tparents_dec_children.
    pose proof (mi_rc s H x tn Ft) as Hr. pose proof (tparents_cremove id _ nd x F). lia.
Qed.

Lemma inv_inner_other : forall s a s' r, MInv s -> inner_step k nl s a = Some (s', r) ->
  token_act a = true -> MInv s'.
Proof.
  intros s a s' r H Hs Ha. unfold inner_step in Hs.
  destruct (step k (tterms (ts_tt s)) nl (ts_c s) a) as [[c' r0]|] eqn:Hc; [|discriminate].
  injection Hs as <- <-. unfold with_c. apply inv_same_table; auto.
  - eapply step_inv; [apply (mi_c s H)|exact Hc].
  - eapply step_cown_inner; [apply (mi_cown s H)|exact Hc].
  - apply (mi_own s H).
  - intros x nd F. rewrite (step_tparents_other _ _ _ _ _ x Hc Ha). apply (mi_rc s H x nd F).
Qed.

Lemma inv_t_upd : forall s f x own', MInv s ->
  (forall o, In o own' -> exists nd, tfind (ts_tt s) (snd o) = Some nd) ->
  (forall y nd, tfind (ts_tt s) y = Some nd ->
     (if N.eqb x y then f (trc nd) else trc nd) = N.of_nat (towners own' y + tparents (cn (ts_c s)) y)) ->
  MInv (mkTst (ts_c s) (t_upd f x (ts_tt s)) (ts_free s) own').
Proof.
  intros s f x own' H Ho Hrc. apply inv_same_table; auto.
  - apply (mi_c s H).
  - apply (mi_cown s H).
  - apply keys_t_upd.
  - apply vals_t_upd.
  - apply tterms_t_upd.
  - intros y nd' Fy. rewrite tfind_t_upd in Fy. specialize (Hrc y).
    destruct (N.eqb x y); [|auto]. destruct (tfind (ts_tt s) y) as [nd|]; [|discriminate].
    inversion Fy; subst. simpl. auto.
Qed.

Lemma inv_t_inc : forall s tid x nd, MInv s -> tfind (ts_tt s) x = Some nd ->
  MInv (mkTst (ts_c s) (t_inc x (ts_tt s)) (ts_free s) ((tid, x) :: ts_own s)).
Proof.
  intros s tid x nd H F. apply inv_t_upd; auto.
  - intros o [Ho|Ho]; [subst o; simpl; eauto|apply (mi_own s H o Ho)].
  - intros y nd' Fy. simpl. pose proof (mi_rc s H y nd' Fy). destruct (N.eqb x y); lia.
Qed.

Lemma inv_t_dec : forall s tid x own', MInv s -> t_take_tok (tid, x) (ts_own s) = Some own' ->
  MInv (mkTst (ts_c s) (t_dec x (ts_tt s)) (ts_free s) own').
Proof.
  intros s tid x own' H Ht. apply inv_t_upd; auto.
  - intros o Ho. apply (mi_own s H). eapply t_take_tok_incl; eauto.
  - intros y nd Fy. pose proof (t_take_tok_owners _ _ _ y Ht) as Hw. simpl in Hw.
    pose proof (mi_rc s H y nd Fy). destruct (N.eqb x y); lia.
Qed.

Lemma inv_t_move : forall s tid tid' x own', MInv s -> t_take_tok (tid, x) (ts_own s) = Some own' ->
  MInv (mkTst (ts_c s) (ts_tt s) (ts_free s) ((tid', x) :: own')).
Proof.
  intros s tid tid' x own' H Ht. apply inv_same_table; auto.
  - apply (mi_c s H).
  - apply (mi_cown s H).
  - intros o [Ho|Ho].
    + subst o. simpl. apply (mi_own s H (tid, x)). eapply t_take_tok_In; eauto.
    + apply (mi_own s H). eapply t_take_tok_incl; eauto.
  - intros y nd Fy. pose proof (t_take_tok_owners _ _ _ y Ht) as Hw. simpl in Hw. simpl.
    pose proof (mi_rc s H y nd Fy). lia.
Qed.

(** a new terminal: the inner invariant does not notice the additional table entry *)
Lemma inv_t_new : forall s tid v x fr, MInv s -> tfind_val (ts_tt s) v = None ->
  ts_free s = x :: fr ->
  MInv (mkTst (ts_c s) ((x, mkT v 1%N) :: ts_tt s) fr ((tid, x) :: ts_own s)).
Proof.
  intros s tid v x fr H Hv Hf.
  pose proof (mi_slots s H) as Hsl. rewrite Hf in Hsl.
  assert (Hx : ~ In x (map fst (ts_tt s)) /\ ~ In x fr /\ NoDup (map fst (ts_tt s) ++ fr)).
  { pose proof (NoDup_remove_1 _ _ _ Hsl) as H1. pose proof (NoDup_remove_2 _ _ _ Hsl) as H2.
    repeat split; auto; intros Hin; apply H2; apply in_or_app; auto. }
  destruct Hx as [Hx1 [Hx2 Hx3]].
  assert (Fx : tfind (ts_tt s) x = None) by (apply tfind_None_keys; exact Hx1).
  constructor; simpl.
  - eapply CInv_terms_ext; [| |apply (mi_c s H)].
    + intros j nd e y F He Er. destruct (child_term_stored s j nd e y H F He Er) as [tn Fy].
      simpl. destruct (N.eqb x y) eqn:E; [apply N.eqb_eq in E; congruence|reflexivity].
    + intros o y Ho Er. destruct (mi_cown s H o Ho) as [id Eo]. congruence.
  - apply (mi_cown s H).
  - constructor; [|apply (mi_vals s H)]. apply tfind_val_None. exact Hv.
  - constructor; [|exact Hx3]. intros Hin. apply in_app_or in Hin. tauto.
  - intros y [Hy|Hy]; apply (mi_bound s H); rewrite Hf; apply in_or_app.
    + right. left. exact Hy.
    + apply in_app_or in Hy. destruct Hy; [left|right; right]; assumption.
  - pose proof (mi_cap s H) as Hc. rewrite Hf in Hc. simpl in Hc. lia.
  - intros o [Ho|Ho].
    + subst o. simpl. rewrite N.eqb_refl. eauto.
    + destruct (mi_own s H o Ho) as [nd F]. destruct (N.eqb x (snd o)) eqn:E; [eauto|eauto].
  - intros y nd Fy. simpl in Fy. destruct (N.eqb x y) eqn:E.
    + apply N.eqb_eq in E. subst y. inversion Fy; subst. simpl.
      assert (H1 : towners (ts_own s) x = 0).
      { apply towners_zero_iff. intros o Ho Eo. destruct (mi_own s H o Ho) as [nd F]. congruence. }
      assert (H2 : tparents (cn (ts_c s)) x = 0).
      { apply tparents_zero_iff. intros j nd e Hj He Er.
        pose proof (In_cfind _ _ _ (ti_nodup _ _ _ _ (ci_tbl _ _ _ _ (mi_c s H))) Hj) as Fj.
        destruct (child_term_stored s j nd e x H Fj He Er) as [tn Ft]. congruence. }
      lia.
    + pose proof (mi_rc s H y nd Fy). lia.
Qed.

(** collecting a terminal with count 0 *)
Lemma inv_t_gc : forall s x nd, MInv s -> tfind (ts_tt s) x = Some nd -> trc nd = 0%N ->
  MInv (mkTst (ts_c s) (tremove x (ts_tt s)) (x :: ts_free s) (ts_own s)).
Proof.
  intros s x nd H F Hz.
  destruct (rc_zero_unreferenced s x nd H F Hz) as [Hw Hp].
  pose proof (MInv_ids s H) as Hids.
  pose proof (tremove_keys_perm x _ nd F) as Hperm.
  assert (Hperm2 : Permutation (map fst (ts_tt s) ++ ts_free s)
                               (map fst (tremove x (ts_tt s)) ++ x :: ts_free s)).
  { eapply perm_trans; [apply Permutation_app_tail; exact Hperm|]. simpl. apply Permutation_middle. }
  constructor; simpl.
  - eapply CInv_terms_ext; [| |apply (mi_c s H)].
    + intros j n e y Fj He Er. rewrite !assoc_tterms. rewrite (tfind_tremove x _ y Hids).
      destruct (N.eqb x y) eqn:E; [|reflexivity]. apply N.eqb_eq in E. subst y. exfalso.
      apply (proj1 (tparents_zero_iff _ x) Hp j n e (cfind_In _ _ _ Fj) He Er).
    + intros o y Ho Er. destruct (mi_cown s H o Ho) as [id Eo]. congruence.
  - apply (mi_cown s H).
  - apply tremove_vals_nodup. apply (mi_vals s H).
  - eapply Permutation_NoDup; [exact Hperm2|apply (mi_slots s H)].
  - intros y Hy. apply (mi_bound s H). eapply Permutation_in; [apply Permutation_sym; exact Hperm2|exact Hy].
  - pose proof (length_tremove x _ nd F). pose proof (mi_cap s H). lia.
  - intros o Ho. destruct (mi_own s H o Ho) as [tn Fo]. rewrite (tfind_tremove x _ _ Hids).
    destruct (N.eqb x (snd o)) eqn:E; [|eauto]. apply N.eqb_eq in E. exfalso.
    apply (proj1 (towners_zero_iff _ x) Hw o Ho). symmetry. exact E.
  - intros y tn Fy. rewrite (tfind_tremove x _ y Hids) in Fy.
    destruct (N.eqb x y); [discriminate|]. apply (mi_rc s H y tn Fy).
Qed.

(** ** 1. every enabled action preserves the invariant *)

Theorem tstep_inv : forall s a s' r, MInv s -> tstep k nl s a = Some (s', r) -> MInv s'.
Proof.
  intros s a s' r H Hs. destruct (tstep_spec _ _ _ _ Hs); clear Hs.
  - eapply inv_goi; eauto.
  - (* retain: the lender is an owner or a stored parent node *)
    unfold t_can_borrow_b in Hb. apply orb_true_iff in Hb. destruct Hb as [Hb|Hb].
    + apply towners_existsb in Hb. destruct (towners_pos_In _ _ Hb) as [o [Ho Eo]].
      destruct (mi_own s H o Ho) as [nd F]. rewrite Eo in F. eapply inv_t_inc; eauto.
    + destruct (edge_ok_term_stored _ _ _ _ (can_borrow_ok k _ nl _ e (mi_c s H) Hb) Er) as [nd F].
      eapply inv_t_inc; eauto.
  - eapply inv_t_dec; eauto.
  - eapply inv_t_move; eauto.
  - eapply inv_gc_node; eauto.
  - eapply inv_inner_other; eauto.
  - (* get_edge *)
    destruct (tfind_val_Some _ _ _ Fv) as [nd [Hin _]].
    eapply inv_t_inc; [exact H|]. apply In_tfind; [apply MInv_ids; exact H|exact Hin].
  - exact H.
  - apply inv_t_new; auto.
  - eapply inv_t_inc; eauto.
  - apply N.eqb_eq in Hz. eapply inv_t_gc; eauto.
Qed.

(** 2. any interleaving = any list of actions *)
Theorem trun_inv : forall sched s s', MInv s -> trun k nl s sched = Some s' -> MInv s'.
Proof.
  induction sched as [|a r IH]; intros s s' H Hr; simpl in Hr.
  - inversion Hr; subst. exact H.
  - destruct (tstep k nl s a) as [[s1 res]|] eqn:Hs; [|discriminate].
    apply (IH s1 s'); [eapply tstep_inv; eauto|exact Hr].
Qed.

Theorem treachable_inv : forall sched s, trun k nl (tinit cap) sched = Some s -> MInv s.
Proof. intros sched s. apply trun_inv. apply MInv_init. Qed.

End Proofs.
