(** * C05 — the dynamic terminal manager: what the operations guarantee

    For every state satisfying [MInv] (hence every state reachable from [tinit cap] under any
    interleaving):  the collector frees only unreferenced terminals and an owner's release
    never underflows ([tgc_term_safe], [t_release_safe], [t_borrow_live]);  no other action
    removes a terminal or changes its value ([tstep_keeps], [tstep_frame]);  `get_edge`
    returns THE terminal with the value and allocates only if there is none, it fails iff
    the value is absent and all [cap] slots are in use ([tget_result], [tget_agree],
    [tget_oom_iff]);  the same value yields the same id until that terminal is collected
    ([trun_get_stable], [trun_get_idle]);  after a collection a re-created value is a newly
    written entry with count 1 ([tget_after_gc_fresh]);  the iterator's retain and the
    consumer's `drop_edge` cancel ([titer_item_release], [titer_all_release],
    [titer_interleaved_release]). *)

From Coq Require Import List NArith PArith Bool Arith Lia Permutation.
From OxiVerif Require Import DD.Table DD.TableProofs Mgr.Conc Mgr.ConcBase Mgr.ConcProofs Mgr.ConcGc
  Mgr.Terminals Mgr.TerminalsBase Mgr.TerminalsProofs.
Import ListNotations.

Arguments N.add : simpl never.
Arguments N.sub : simpl never.
Arguments N.mul : simpl never.

Section Thms.
Variable k : kind.
Variable nl : nat.
Variable cap : nat.

Notation MInv := (MInv k nl cap).
Notation tstep := (tstep k nl).
Notation trun := (trun k nl).

(** the thread that performs an action ([None]: the collector) *)
Definition tact_tid (a : tact) : option nat :=
  match a with
  | TIn a => act_tid a
  | TGet tid _ | TIterItem tid _ => Some tid
  | TGcTerm _ => None
  end.

Lemma trun_cons : forall s a r,
  trun s (a :: r) = match tstep s a with Some (s', _) => trun s' r | None => None end.
Proof. reflexivity. Qed.

Lemma trun_app : forall a b s,
  trun s (a ++ b) = match trun s a with Some s1 => trun s1 b | None => None end.
Proof.
  induction a as [|x r IH]; intros b s; simpl; [reflexivity|].
  destruct (tstep s x) as [[s1 res]|]; [apply IH|reflexivity].
Qed.

(** lookup by value = lookup of THE entry with that value *)
Lemma tfind_val_iff : forall s v x, MInv s ->
  (tfind_val (ts_tt s) v = Some x <-> exists nd, tfind (ts_tt s) x = Some nd /\ tval nd = v).
Proof.
  intros s v x H. split.
  - intros F. destruct (tfind_val_Some _ _ _ F) as [nd [Hin Hv]]. exists nd. split; [|exact Hv].
    apply In_tfind; [apply (MInv_ids _ _ _ _ H)|exact Hin].
  - intros [nd [F Hv]]. eapply tfind_val_complete; [apply (mi_vals _ _ _ _ H)|apply tfind_In; exact F|exact Hv].
Qed.

(** hash consing: two stored terminals with the same value are the same terminal *)
Theorem terminals_canonical : forall s x y nx ny, MInv s ->
  tfind (ts_tt s) x = Some nx -> tfind (ts_tt s) y = Some ny -> tval nx = tval ny -> x = y.
Proof.
  intros s x y nx ny H Fx Fy E.
  assert (H1 : tfind_val (ts_tt s) (tval nx) = Some x) by (apply tfind_val_iff; eauto).
  assert (H2 : tfind_val (ts_tt s) (tval nx) = Some y) by (apply tfind_val_iff; eauto).
  congruence.
Qed.

(** ** the collector *)

(** 3. a terminal disappears only when neither an owned edge nor a stored node refers to it *)
Theorem tgc_term_safe : forall s x s' r, MInv s -> tstep s (TGcTerm x) = Some (s', r) ->
  towners (ts_own s) x = 0 /\ tparents (cn (ts_c s)) x = 0 /\
  (forall o, In o (ts_own s) -> snd o <> x) /\
  (forall j nd e, cfind (cn (ts_c s)) j = Some nd -> In e (cch nd) -> eref e <> RT x) /\
  tfind (ts_tt s') x = None /\ In x (ts_free s') /\
  ts_c s' = ts_c s /\ ts_own s' = ts_own s.
Proof.
  intros s x s' r H Hs. unfold Terminals.tstep in Hs.
  destruct (tfind (ts_tt s) x) as [nd|] eqn:F; [|discriminate].
  destruct (N.eqb_spec (trc nd) 0) as [Hz|_]; [|discriminate].
  injection Hs as <- <-. simpl.
  destruct (rc_zero_unreferenced _ _ _ s x nd H F Hz) as [Hw Hp].
  repeat split; auto.
  - apply towners_zero_iff. exact Hw.
  - intros j n e Fj He. apply (proj1 (tparents_zero_iff _ x) Hp j n e (cfind_In _ _ _ Fj) He).
  - rewrite (tfind_tremove x _ x (MInv_ids _ _ _ _ H)). rewrite N.eqb_refl. reflexivity.
Qed.

(** count 0 <=> no owner and no parent; then the collector's action is enabled *)
Theorem tgc_term_enabled : forall s x nd, MInv s -> tfind (ts_tt s) x = Some nd ->
  (trc nd = 0%N <-> towners (ts_own s) x = 0 /\ tparents (cn (ts_c s)) x = 0) /\
  (trc nd = 0%N -> exists s', tstep s (TGcTerm x) = Some (s', TRnone)).
Proof.
  intros s x nd H F. pose proof (mi_rc _ _ _ s H x nd F) as Hr. split.
  - split; [intros Hz; lia|intros [H1 H2]; lia].
  - intros Hz. unfold Terminals.tstep. rewrite F, Hz. simpl. eexists; reflexivity.
Qed.

(** an owner's release finds a positive count (the saturating [N.pred] of [t_dec] is never
    hit; `debug_assert!(_old_rc > 1)` of `release` holds) *)
Theorem t_release_safe : forall s tid x b, MInv s -> In (tid, x) (ts_own s) ->
  exists nd s', tfind (ts_tt s) x = Some nd /\ trc nd <> 0%N /\
    tstep s (TIn (ARelease tid (mkEdge (RT x) b))) = Some (s', TRnone) /\
    tfind (ts_tt s') x = Some (mkT (tval nd) (N.pred (trc nd))).
Proof.
  intros s tid x b H Hin. destruct (mi_own _ _ _ s H _ Hin) as [nd F]. simpl in F.
  destruct (In_t_take_tok _ _ Hin) as [own' Ht].
  pose proof (mi_rc _ _ _ s H x nd F) as Hr. pose proof (In_towners_pos _ x _ Hin eq_refl) as Hp.
  exists nd. eexists. split; [exact F|]. split; [lia|].
  unfold Terminals.tstep. simpl. rewrite Ht. split; [reflexivity|]. simpl.
  unfold t_dec. rewrite tfind_t_upd, N.eqb_refl, F. reflexivity.
Qed.

Lemma borrow_b_inv : forall t f root e, borrow_b t f root e = true ->
  root = e \/ exists j nd, cfind t j = Some nd /\ In e (cch nd).
Proof.
  induction f as [|f IH]; intros root e Hb; simpl in Hb; apply orb_true_iff in Hb;
    destruct Hb as [Hb|Hb]; try (left; apply edge_eqb_eq; exact Hb); try discriminate.
  destruct (eref root) as [x|id]; [discriminate|].
  destruct (cfind t id) as [nd|] eqn:F; [|discriminate].
  apply existsb_exists in Hb. destruct Hb as [c [Hc Hbc]].
  destruct (IH c e Hbc) as [E|E]; [|right; exact E].
  subst c. right. exists id, nd. split; [exact F|exact Hc].
Qed.

(** an edge to a terminal that a thread can borrow (and then retain) has a positive count:
    the collector cannot free the terminal under the thread's feet *)
Theorem t_borrow_live : forall s e x, MInv s -> eref e = RT x -> t_can_borrow_b nl s e x = true ->
  exists nd, tfind (ts_tt s) x = Some nd /\ trc nd <> 0%N.
Proof.
  intros s e x H Er Hb. unfold t_can_borrow_b in Hb. apply orb_true_iff in Hb. destruct Hb as [Hb|Hb].
  - apply towners_existsb in Hb. destruct (towners_pos_In _ _ Hb) as [o [Ho Eo]].
    destruct (mi_own _ _ _ s H o Ho) as [nd F]. rewrite Eo in F. exists nd. split; [exact F|].
    pose proof (mi_rc _ _ _ s H x nd F). lia.
  - unfold can_borrow_b in Hb. apply existsb_exists in Hb. destruct Hb as [o [Ho Hbo]].
    destruct (borrow_b_inv _ _ _ _ Hbo) as [E|[j [nd [F He]]]].
    + destruct (mi_cown _ _ _ s H o Ho) as [id Eo]. rewrite E in Eo. congruence.
    + destruct (child_term_stored _ _ _ s j nd e x H F He Er) as [tn Ft].
      exists tn. split; [exact Ft|].
      pose proof (mi_rc _ _ _ s H x tn Ft). pose proof (In_tparents_pos _ x j nd e (cfind_In _ _ _ F) He Er). lia.
Qed.

(** ** frame *)

Lemma inner_step_frame : forall s a s' r, inner_step k nl s a = Some (s', r) ->
  ts_tt s' = ts_tt s /\ ts_own s' = ts_own s.
Proof.
  intros s a s' r Hi. unfold inner_step in Hi.
  destruct (step k (tterms (ts_tt s)) nl (ts_c s) a) as [[c1 r1]|]; [|discriminate].
  injection Hi as <- <-. split; reflexivity.
Qed.

Lemma tstep_tterms : forall s a s' r, tstep s a = Some (s', r) ->
  tterms (ts_tt s') = tterms (ts_tt s) \/
  (exists tid v x fr, a = TGet tid v /\ ts_free s = x :: fr /\ ts_tt s' = (x, mkT v 1%N) :: ts_tt s) \/
  (exists x, a = TGcTerm x /\ ts_tt s' = tremove x (ts_tt s)).
Proof.
  intros s a s' r Hs.
  destruct (tstep_spec k nl s a s' r Hs); simpl; eauto using tterms_t_upd, tterms_t_dec_children.
  - left. destruct (find_shape (cn (ts_c s)) lvl ch); auto using tterms_t_dec_children.
  - left. rewrite (proj1 (inner_step_frame _ _ _ _ Hi)). reflexivity.
  - right; left; repeat eexists. exact Hf.
Qed.

(** 4. only the collector's action on [x] itself removes the terminal [x]; no action
    changes the value of a stored terminal *)
Theorem tstep_keeps : forall s a s' r x nd, MInv s -> tstep s a = Some (s', r) ->
  a <> TGcTerm x -> tfind (ts_tt s) x = Some nd ->
  exists nd', tfind (ts_tt s') x = Some nd' /\ tval nd' = tval nd.
Proof.
  intros s a s' r x nd H Hs Hne F.
  destruct (tstep_tterms _ _ _ _ Hs) as [E|[[tid [v [y [fr [_ [Hf E]]]]]]|[y [Ea E]]]]; rewrite ?E.
  - pose proof (assoc_tterms (ts_tt s') x) as Hx. rewrite E, assoc_tterms, F in Hx.
    destruct (tfind (ts_tt s') x) as [nd'|]; [|discriminate]. exists nd'. split; [reflexivity|congruence].
  - simpl. destruct (N.eqb_spec y x) as [Ey|_]; [|eauto]. subst y. exfalso.
    pose proof (mi_slots _ _ _ s H) as Hsl. rewrite Hf in Hsl.
    apply (NoDup_remove_2 _ _ _ Hsl). apply in_or_app. left. eapply tfind_Some_keys; eauto.
  - rewrite (tfind_tremove y _ x (MInv_ids _ _ _ _ H)).
    destruct (N.eqb_spec y x); [congruence|eauto].
Qed.

(** no action at all removes (or alters the value of) a terminal that is in use *)
Theorem tstep_frame : forall s a s' r x nd, MInv s -> tstep s a = Some (s', r) ->
  tfind (ts_tt s) x = Some nd -> trc nd <> 0%N ->
  exists nd', tfind (ts_tt s') x = Some nd' /\ tval nd' = tval nd.
Proof.
  intros s a s' r x nd H Hs F Hnz. eapply tstep_keeps; eauto.
  intros E. subst a. unfold Terminals.tstep in Hs. rewrite F in Hs.
  destruct (N.eqb_spec (trc nd) 0); [contradiction|discriminate].
Qed.

(** an action of another thread (or of the collector) does not consume a thread's token *)
Theorem tstep_keeps_token : forall s a s' r tid x, tstep s a = Some (s', r) ->
  tact_tid a <> Some tid -> In (tid, x) (ts_own s) -> In (tid, x) (ts_own s').
Proof.
  intros s a s' r tid x Hs Hne Hin.
  destruct (tstep_spec k nl s a s' r Hs); simpl in *; auto.
  (* the actions that take tokens take those of the acting thread *)
  - eapply t_take_toks_other; eauto; simpl; congruence.
  - eapply t_take_tok_other; eauto; congruence.
  - right. eapply t_take_tok_other; eauto; congruence.
  - rewrite (proj2 (inner_step_frame _ _ _ _ Hi)). exact Hin.
Qed.

(** ** `get_edge` *)

(** 5. the result of `get_edge` *)
Theorem tget_result : forall s tid v s' r, MInv s -> tstep s (TGet tid v) = Some (s', r) ->
  (r = TRoom /\ s' = s /\ tfind_val (ts_tt s) v = None /\ length (ts_tt s) = cap) \/
  (exists x, r = TRterm x /\ In (tid, x) (ts_own s') /\ ts_c s' = ts_c s /\
     ((exists nd, tfind (ts_tt s) x = Some nd /\ tval nd = v /\
                  tfind (ts_tt s') x = Some (mkT v (N.succ (trc nd))) /\ ts_free s' = ts_free s) \/
      (tfind_val (ts_tt s) v = None /\ tfind (ts_tt s) x = None /\
       ts_free s = x :: ts_free s' /\ ts_tt s' = (x, mkT v 1%N) :: ts_tt s))).
Proof.
  intros s tid v s' r H Hs. unfold Terminals.tstep in Hs.
  destruct (tfind_val (ts_tt s) v) as [x|] eqn:Fv.
  - right. exists x. injection Hs as <- <-. simpl. split; [reflexivity|]. split; [left; reflexivity|].
    split; [reflexivity|]. left.
    destruct (proj1 (tfind_val_iff s v x H) Fv) as [nd [F Hv]]. exists nd.
    split; [exact F|]. split; [exact Hv|]. split; [|reflexivity].
    unfold t_inc. rewrite tfind_t_upd, N.eqb_refl, F, Hv. reflexivity.
  - destruct (ts_free s) as [|x fr] eqn:Hf.
    + left. injection Hs as E1 E2. subst s' r. repeat split; auto.
      pose proof (mi_cap _ _ _ s H) as Hc. rewrite Hf in Hc. simpl in Hc. lia.
    + right. exists x. injection Hs as <- <-. simpl. split; [reflexivity|]. split; [left; reflexivity|].
      split; [reflexivity|]. right. repeat split; auto.
      apply tfind_None_keys. intros Hin.
      pose proof (mi_slots _ _ _ s H) as Hsl. rewrite Hf in Hsl.
      apply (NoDup_remove_2 _ _ _ Hsl). apply in_or_app. left. exact Hin.
Qed.

(** `get_edge` fails iff the value is not stored and every slot is in use: no slot is lost *)
Theorem tget_oom_iff : forall s tid v, MInv s ->
  (tstep s (TGet tid v) = Some (s, TRoom) <->
   tfind_val (ts_tt s) v = None /\ length (ts_tt s) = cap).
Proof.
  intros s tid v H. split.
  - intros Hs. destruct (tget_result s tid v s TRoom H Hs) as [[_ [_ [H1 H2]]]|[x [E _]]]; [auto|discriminate].
  - intros [Hv Hl]. unfold Terminals.tstep. rewrite Hv.
    pose proof (mi_cap _ _ _ s H) as Hc. destruct (ts_free s); [reflexivity|simpl in Hc; lia].
Qed.

(** if a terminal with the value is stored, every thread gets exactly its id *)
Theorem tget_agree : forall s x nd tid, MInv s -> tfind (ts_tt s) x = Some nd ->
  exists s', tstep s (TGet tid (tval nd)) = Some (s', TRterm x).
Proof.
  intros s x nd tid H F. unfold Terminals.tstep.
  rewrite (proj2 (tfind_val_iff s (tval nd) x H)); [|eauto]. eexists; reflexivity.
Qed.

(** different values get different terminals, equal values the same *)
Theorem tget_twice : forall s t1 t2 v1 v2 s1 s2 x1 x2, MInv s ->
  tstep s (TGet t1 v1) = Some (s1, TRterm x1) -> tstep s1 (TGet t2 v2) = Some (s2, TRterm x2) ->
  (x1 = x2 <-> v1 = v2).
Proof.
  intros s t1 t2 v1 v2 s1 s2 x1 x2 H H1 H2.
  pose proof (tstep_inv _ _ _ _ _ _ _ H H1) as Hi1.
  assert (F1 : exists n1, tfind (ts_tt s1) x1 = Some n1 /\ tval n1 = v1).
  { destruct (tget_result _ _ _ _ _ H H1) as [[E _]|[x [E [_ [_ [[nd [_ [Hv [F _]]]]|[_ [_ [_ Et]]]]]]]]]; [discriminate| |];
      inversion E; subst x.
    - eexists; split; [exact F|reflexivity].
    - rewrite Et. simpl. rewrite N.eqb_refl. eexists; split; reflexivity. }
  destruct F1 as [n1 [F1 Hv1]].
  split.
  - intros E. subst x2.
    destruct (tget_result _ _ _ _ _ Hi1 H2) as [[E _]|[x [E [_ [_ [[nd [F [Hv _]]]|[_ [Fn _]]]]]]]]; [discriminate| |];
      inversion E; subst x; congruence.
  - intros E. subst v2. destruct (tget_agree s1 x1 n1 t2 Hi1 F1) as [s' Hs']. rewrite Hv1 in Hs'. congruence.
Qed.

(** 6. canonicity over time: as long as the terminal is not collected, `get_edge` of its
    value returns its id -- whatever all threads do in between *)
Theorem trun_get_stable : forall sched s s' v x, MInv s -> tfind_val (ts_tt s) v = Some x ->
  trun s sched = Some s' -> ~ In (TGcTerm x) sched ->
  tfind_val (ts_tt s') v = Some x /\
  forall tid, exists s'', tstep s' (TGet tid v) = Some (s'', TRterm x).
Proof.
  induction sched as [|a rest IH]; intros s s' v x H Fv Hr Hni; simpl in Hr.
  - inversion Hr; subst. split; [exact Fv|]. intros tid. unfold Terminals.tstep. rewrite Fv. eexists; reflexivity.
  - destruct (tstep s a) as [[s1 res]|] eqn:Hs; [|discriminate].
    destruct (proj1 (tfind_val_iff s v x H) Fv) as [nd [F Hv]].
    assert (Hne : a <> TGcTerm x) by (intros E; apply Hni; left; exact E).
    destruct (tstep_keeps s a s1 res x nd H Hs Hne F) as [nd' [F' Hv']].
    pose proof (tstep_inv _ _ _ _ _ _ _ H Hs) as H1.
    apply (IH s1 s' v x H1); [|exact Hr|intros Hin; apply Hni; right; exact Hin].
    apply tfind_val_iff; [exact H1|]. exists nd'. split; [exact F'|congruence].
Qed.

(** ... in particular while some thread sits on an edge to it: the others and the collector
    can do what they want (the collector's action on it is never enabled) *)
Theorem trun_get_idle : forall sched s s' tid x nd, MInv s -> trun s sched = Some s' ->
  (forall a, In a sched -> tact_tid a <> Some tid) ->
  In (tid, x) (ts_own s) -> tfind (ts_tt s) x = Some nd ->
  In (tid, x) (ts_own s') /\
  (exists nd', tfind (ts_tt s') x = Some nd' /\ tval nd' = tval nd /\ trc nd' <> 0%N) /\
  forall t, exists s'', tstep s' (TGet t (tval nd)) = Some (s'', TRterm x).
Proof.
  induction sched as [|a rest IH]; intros s s' tid x nd H Hr Hidle Hin F; simpl in Hr.
  - inversion Hr; subst. split; [exact Hin|]. split.
    + exists nd. repeat split; auto. pose proof (mi_rc _ _ _ s' H x nd F).
      pose proof (In_towners_pos _ x _ Hin eq_refl). lia.
    + intros t. apply (tget_agree s' x nd t H F).
  - destruct (tstep s a) as [[s1 res]|] eqn:Hs; [|discriminate].
    assert (Hnz : trc nd <> 0%N).
    { pose proof (mi_rc _ _ _ s H x nd F). pose proof (In_towners_pos _ x _ Hin eq_refl). lia. }
    destruct (tstep_frame s a s1 res x nd H Hs F Hnz) as [nd1 [F1 Hv1]].
    pose proof (tstep_inv _ _ _ _ _ _ _ H Hs) as H1.
    assert (Hin1 : In (tid, x) (ts_own s1)).
    { eapply tstep_keeps_token; [exact Hs|apply Hidle; left; reflexivity|exact Hin]. }
    destruct (IH s1 s' tid x nd1 H1 Hr (fun a0 Ha => Hidle a0 (or_intror Ha)) Hin1 F1) as [G1 [[nd' [G2 [G3 G4]]] G5]].
    split; [exact G1|]. split.
    + exists nd'. repeat split; auto. congruence.
    + rewrite <- Hv1. exact G5.
Qed.

(** a value whose terminal was collected is re-created as a newly written entry with count 1
    (in the slot that the collection has just pushed onto the free chain) *)
Theorem tget_after_gc_fresh : forall s x nd s1 r1 tid, MInv s -> tfind (ts_tt s) x = Some nd ->
  tstep s (TGcTerm x) = Some (s1, r1) ->
  tfind_val (ts_tt s1) (tval nd) = None /\
  exists s2, tstep s1 (TGet tid (tval nd)) = Some (s2, TRterm x) /\
             ts_tt s2 = (x, mkT (tval nd) 1%N) :: ts_tt s1 /\ ts_free s2 = ts_free s.
Proof.
  intros s x nd s1 r1 tid H F Hs.
  pose proof (tstep_inv _ _ _ _ _ _ _ H Hs) as H1.
  unfold Terminals.tstep in Hs. rewrite F in Hs.
  destruct (N.eqb (trc nd) 0); [|discriminate]. injection Hs as <- <-. simpl.
  assert (Hv : tfind_val (tremove x (ts_tt s)) (tval nd) = None).
  { destruct (tfind_val (tremove x (ts_tt s)) (tval nd)) as [y|] eqn:Fy; [|reflexivity]. exfalso.
    destruct (proj1 (tfind_val_iff _ _ _ H1) Fy) as [ny [Fy1 Hvy]]. simpl in Fy1.
    rewrite (tfind_tremove x _ y (MInv_ids _ _ _ _ H)) in Fy1.
    destruct (N.eqb x y) eqn:E; [discriminate|]. apply N.eqb_neq in E. apply E.
    apply (terminals_canonical s x y nd ny H F Fy1). symmetry. exact Hvy. }
  split; [exact Hv|]. unfold Terminals.tstep. simpl. rewrite Hv. eexists. split; [reflexivity|]. split; reflexivity.
Qed.

(** ** the iterator *)

Theorem titer_ids_spec : forall s, MInv s ->
  NoDup (titer_ids s) /\ length (titer_ids s) = tlen s /\
  forall x, In x (titer_ids s) <-> exists nd, tfind (ts_tt s) x = Some nd.
Proof.
  intros s H. unfold titer_ids, tlen. split; [apply (MInv_ids _ _ _ _ H)|]. split; [apply map_length|].
  intros x. split; [apply keys_tfind_Some|]. intros [nd F]. eapply tfind_Some_keys; eauto.
Qed.

(** 7. one `next()` followed by `drop_edge` of the yielded edge restores the state exactly *)
Theorem titer_item_release : forall s tid x s1 r b, tstep s (TIterItem tid x) = Some (s1, r) ->
  r = TRterm x /\ tstep s1 (TIn (ARelease tid (mkEdge (RT x) b))) = Some (s, TRnone).
Proof.
  intros s tid x s1 r b Hs. unfold Terminals.tstep in Hs.
  destruct (tfind (ts_tt s) x); [|discriminate]. injection Hs as <- <-. split; [reflexivity|].
  unfold Terminals.tstep. simpl.
  assert (E : ttok_eqb (tid, x) (tid, x) = true) by (apply ttok_eqb_eq; reflexivity).
  rewrite E. rewrite t_dec_inc. destruct s; reflexivity.
Qed.

Lemma titer_item_enabled : forall s tid x nd, tfind (ts_tt s) x = Some nd ->
  exists s1, tstep s (TIterItem tid x) = Some (s1, TRterm x) /\
             forall y ny, tfind (ts_tt s) y = Some ny -> exists ny', tfind (ts_tt s1) y = Some ny'.
Proof.
  intros s tid x nd F. unfold Terminals.tstep. rewrite F. eexists. split; [reflexivity|].
  intros y ny Fy. simpl. unfold t_inc. rewrite tfind_t_upd, Fy. destruct (N.eqb x y); eauto.
Qed.

Definition iter_acts (tid : nat) (xs : list N) : list tact := map (TIterItem tid) xs.
Definition drop_acts (tid : nat) (xs : list N) : list tact :=
  map (fun x => TIn (ARelease tid (mkEdge (RT x) false))) xs.

(** a complete iteration (all yielded edges collected), then all of them dropped in reverse
    order: the state is exactly the one before *)
Theorem titer_all_release : forall xs s tid,
  (forall x, In x xs -> exists nd, tfind (ts_tt s) x = Some nd) ->
  trun s (iter_acts tid xs ++ drop_acts tid (rev xs)) = Some s.
Proof.
  induction xs as [|x r IH]; intros s tid Hst; [reflexivity|].
  destruct (Hst x (or_introl eq_refl)) as [nd F].
  destruct (titer_item_enabled s tid x nd F) as [s1 [Hs1 Hkeep]].
  destruct (titer_item_release s tid x s1 _ false Hs1) as [_ Hrel].
  change (iter_acts tid (x :: r)) with (TIterItem tid x :: iter_acts tid r).
  change (rev (x :: r)) with (rev r ++ [x]).
  unfold drop_acts at 1. rewrite map_app. fold (drop_acts tid (rev r)).
  rewrite <- app_comm_cons, trun_cons, Hs1, app_assoc, trun_app, IH.
  - cbn [map]. rewrite trun_cons, Hrel. reflexivity.
  - intros y Hy. destruct (Hst y (or_intror Hy)) as [ny Fy]. apply (Hkeep y ny Fy).
Qed.

(** the pattern of the snapshot code: `for t in m.terminals() { ..; m.drop_edge(t) }` *)
Theorem titer_interleaved_release : forall xs s tid,
  (forall x, In x xs -> exists nd, tfind (ts_tt s) x = Some nd) ->
  trun s (flat_map (fun x => [TIterItem tid x; TIn (ARelease tid (mkEdge (RT x) false))]) xs) = Some s.
Proof.
  induction xs as [|x r IH]; intros s tid Hst; [reflexivity|].
  destruct (Hst x (or_introl eq_refl)) as [nd F].
  destruct (titer_item_enabled s tid x nd F) as [s1 [Hs1 _]].
  destruct (titer_item_release s tid x s1 _ false Hs1) as [_ Hrel].
  cbn [flat_map app]. rewrite trun_cons, Hs1, trun_cons, Hrel.
  apply IH. intros y Hy. apply Hst. right. exact Hy.
Qed.

End Thms.
