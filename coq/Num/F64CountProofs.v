(** * Theorems about the counting type [F64] (model: Num/F64Count.v)

    [dy c j] is the real number [c * 2^j]; [frep x c j]: the float [x] is
    finite, non-negative and holds exactly [c * 2^j].
    - exactness: sums ([frep_add], [frep_add_as]), scalings by powers of two
      ([frep_shl], [frep_shr], [frep_scale]) and conversions ([of_N_rep]) of
      values with at most 53 significant bits ([c <= 2^53], exponent
      [>= -1074]) are exact below [2^1024] and [+inf] from there on
      ([frep_add_cases], [frep_shl_ovf], [of_N_ovf]); [shl_of_N]: [x << k] is the
      correctly rounded conversion of the exact integer product;
    - in general every operation is Flocq's correctly rounded result:
      [f64c_add_round], [f64c_shl_round], [f64c_shr_round], [f64_of_N_round]
      (and the overflow cases).
    Limits of the code that show in the statements: [exp2(k) = +inf] for
    [k >= 1024] and [exp2(-k) = 0] for [k >= 1075], so [x << k] is the rounded
    product only for [k <= 1023] or operands [>= 1] (what [sat_count] feeds it)
    and [x >> k] only for [k <= 1074].

    Flocq's theorems rest on the classical axioms of Coq's reals; [Print
    Assumptions] lists [ClassicalDedekindReals.sig_forall_dec],
    [ClassicalDedekindReals.sig_not_dec],
    [FunctionalExtensionality.functional_extensionality_dep],
    [Classical_Prop.classic]. *)
From Coq Require Import ZArith NArith Bool Lia Reals Lra.
From Flocq Require Import Core.Core IEEE754.BinarySingleNaN IEEE754.Binary IEEE754.Bits.
From OxiVerif Require Import Num.F64Count.
Local Open Scope Z_scope.

Notation fexp64 := (FLT_exp (-1074) 53).
Notation rnd64 := (round radix2 fexp64 ZnearestE).
Notation fin := (is_finite 53 1024).
Notation sgn := (Bsign 53 1024).
Notation b2r := (B2R 53 1024).

Lemma IZR_N_pow2 : forall k : N, IZR (Z.of_N (2 ^ k)) = bpow radix2 (Z.of_N k).
Proof.
  intros k. rewrite N2Z.inj_pow. change (Z.of_N 2) with (radix_val radix2).
  apply IZR_Zpower. lia.
Qed.

Lemma IZR_N_nonneg : forall c : N, (0 <= IZR (Z.of_N c))%R.
Proof. intros c. apply IZR_le. lia. Qed.

Lemma IZR_N_le_bpow : forall (c p : N), (c <= 2 ^ p)%N -> (IZR (Z.of_N c) <= bpow radix2 (Z.of_N p))%R.
Proof. intros c p H. rewrite <- IZR_N_pow2. apply IZR_le. lia. Qed.

Lemma IZR_N_lt_bpow : forall (c p : N), (c < 2 ^ p)%N -> (IZR (Z.of_N c) < bpow radix2 (Z.of_N p))%R.
Proof. intros c p H. rewrite <- IZR_N_pow2. apply IZR_lt. lia. Qed.

Lemma IZR_N_ge_bpow : forall (c p : N), (2 ^ p <= c)%N -> (bpow radix2 (Z.of_N p) <= IZR (Z.of_N c))%R.
Proof. intros c p H. rewrite <- IZR_N_pow2. apply IZR_le. lia. Qed.

(** [c * 2^j] as a real *)
Definition dy (c : N) (j : Z) : R := (IZR (Z.of_N c) * bpow radix2 j)%R.

Lemma dy_nonneg : forall c j, (0 <= dy c j)%R.
Proof. intros. unfold dy. apply Rmult_le_pos; [apply IZR_N_nonneg | apply bpow_ge_0]. Qed.

Lemma dy_pos : forall c j, c <> 0%N -> (0 < dy c j)%R.
Proof.
  intros c j H. unfold dy. apply Rmult_lt_0_compat; [|apply bpow_gt_0].
  apply IZR_lt. lia.
Qed.

Lemma dy_0 : forall j, dy 0 j = 0%R.
Proof. intros. unfold dy. simpl. ring. Qed.

Lemma dy_add : forall a b j, dy (a + b) j = (dy a j + dy b j)%R.
Proof. intros. unfold dy. rewrite N2Z.inj_add, plus_IZR. ring. Qed.

Lemma dy_mul : forall a b i j, dy (a * b) (i + j) = (dy a i * dy b j)%R.
Proof. intros. unfold dy. rewrite N2Z.inj_mul, mult_IZR, bpow_plus. ring. Qed.

Lemma dy_shift : forall c (i : N) j, dy (c * 2 ^ i) j = dy c (Z.of_N i + j).
Proof. intros. unfold dy. rewrite N2Z.inj_mul, mult_IZR, IZR_N_pow2, bpow_plus. ring. Qed.

Lemma dy_int : forall c, dy c 0 = IZR (Z.of_N c).
Proof. intros. unfold dy. simpl. ring. Qed.

(** bounds *)
Lemma dy_le_bpow : forall c (p : N) j, (c <= 2 ^ p)%N -> (dy c j <= bpow radix2 (Z.of_N p + j))%R.
Proof.
  intros c p j H. unfold dy. rewrite bpow_plus. apply Rmult_le_compat_r; [apply bpow_ge_0|].
  apply IZR_N_le_bpow. exact H.
Qed.

Lemma dy_ge_exp : forall c (p : N) j E, (c <= 2 ^ p)%N -> (bpow radix2 E <= dy c j)%R -> E <= Z.of_N p + j.
Proof.
  intros c p j E H Hb. apply (le_bpow radix2).
  eapply Rle_trans; [exact Hb | apply dy_le_bpow; exact H].
Qed.

(** every [c * 2^j] with [c <= 2^53] and [j >= -1074] is a binary64 number *)
Lemma dy_format : forall c j, (c <= 2 ^ 53)%N -> -1074 <= j -> generic_format radix2 fexp64 (dy c j).
Proof.
  intros c j Hc Hj. apply generic_format_FLT.
  destruct (N.eq_dec c (2 ^ 53)) as [->|Hne].
  - apply (FLT_spec radix2 (-1074) 53 _ (Float radix2 (2 ^ 52) (j + 1))).
    + unfold dy, F2R. simpl Fnum. simpl Fexp. rewrite bpow_plus.
      change (Z.of_N (2 ^ 53)) with (2 * 2 ^ 52). rewrite mult_IZR. change (bpow radix2 1) with 2%R. change (Z.pow_pos 2 52) with (2 ^ 52). ring.
    + simpl Fnum. change (Z.abs (2 ^ 52)) with (2 ^ 52). change (radix2 ^ 53) with (2 ^ 53). lia.
    + simpl Fexp. lia.
  - apply (FLT_spec radix2 (-1074) 53 _ (Float radix2 (Z.of_N c) j)).
    + reflexivity.
    + simpl Fnum. change (radix2 ^ 53) with (2 ^ 53).
      assert (c < 2 ^ 53)%N by lia. change (2 ^ 53)%N with 9007199254740992%N in *.
      change (2 ^ 53) with 9007199254740992. lia.
    + simpl Fexp. exact Hj.
Qed.

Lemma dy_round : forall c j, (c <= 2 ^ 53)%N -> -1074 <= j -> rnd64 (dy c j) = dy c j.
Proof. intros. apply round_generic; [apply valid_rnd_N | apply dy_format; assumption]. Qed.

(** ** exactly represented values *)

Definition frep (x : binary64) (c : N) (j : Z) : Prop :=
  fin x = true /\ sgn x = false /\ b2r x = dy c j.

Lemma frep_unique : forall x y c j, frep x c j -> frep y c j -> x = y.
Proof.
  intros x y c j (Fx & Sx & Vx) (Fy & Sy & Vy).
  apply B2R_Bsign_inj; congruence.
Qed.

Lemma frep_ext : forall x c j c' j', frep x c j -> dy c j = dy c' j' -> frep x c' j'.
Proof. intros x c j c' j' (F & S & V) E. repeat split; congruence. Qed.

Lemma frep_zero : forall x j, frep x 0 j -> x = f64c_pos_zero.
Proof.
  intros x j Hx. apply (frep_unique x f64c_pos_zero 0 j Hx).
  repeat split; try reflexivity. rewrite dy_0. reflexivity.
Qed.

Lemma frep_pos_zero : forall j, frep f64c_pos_zero 0 j.
Proof. intros. repeat split; try reflexivity. rewrite dy_0. reflexivity. Qed.

Lemma frep_is_zero : forall x c j, frep x c j -> f64c_is_zero x = (c =? 0)%N.
Proof.
  intros x c j (F & S & V). destruct (N.eqb_spec c 0) as [->|Hc].
  - rewrite dy_0 in V. destruct x; try discriminate; try reflexivity.
    exfalso. simpl in S. subst s.
    assert (0 < b2r (B754_finite 53 1024 false m e e0))%R by (apply F2R_gt_0; reflexivity). lra.
  - pose proof (dy_pos c j Hc) as P. destruct x; try discriminate; try reflexivity.
    simpl in V. lra.
Qed.

Lemma frep_lt_emax : forall x c j, frep x c j -> (dy c j < bpow radix2 1024)%R.
Proof.
  intros x c j (F & S & V). rewrite <- V.
  pose proof (abs_B2R_lt_emax 53 1024 x) as H. 
  apply Rle_lt_trans with (2 := H). apply RRle_abs.
Qed.

Lemma Rabs_dy : forall c j, Rabs (dy c j) = dy c j.
Proof. intros. apply Rabs_pos_eq. apply dy_nonneg. Qed.

Lemma inf_of_B2FF : forall x : binary64, B2FF 53 1024 x = F754_infinity false -> x = f64c_pos_inf.
Proof. intros x H. destruct x; try discriminate. simpl in H. inversion H. reflexivity. Qed.

(** ** Flocq's correctness theorems in the vocabulary of this file *)

Lemma add_correct : forall x y, fin x = true -> fin y = true ->
  if Rlt_bool (Rabs (rnd64 (b2r x + b2r y))) (bpow radix2 1024)
  then b2r (f64c_add x y) = rnd64 (b2r x + b2r y) /\ fin (f64c_add x y) = true /\
       sgn (f64c_add x y) = match Rcompare (b2r x + b2r y) 0 with
                            | Eq => sgn x && sgn y | Lt => true | Gt => false end
  else B2FF 53 1024 (f64c_add x y) = binary_overflow 53 1024 mode_NE (sgn x) /\ sgn x = sgn y.
Proof. exact (Bplus_correct 53 1024 Hprec53 Hmax1024 binop_nan_pl64 mode_NE). Qed.

Lemma mult_correct : forall x y,
  if Rlt_bool (Rabs (rnd64 (b2r x * b2r y))) (bpow radix2 1024)
  then b2r (b64_mult mode_NE x y) = rnd64 (b2r x * b2r y) /\
       fin (b64_mult mode_NE x y) = fin x && fin y /\
       (is_nan 53 1024 (b64_mult mode_NE x y) = false ->
        sgn (b64_mult mode_NE x y) = xorb (sgn x) (sgn y))
  else B2FF 53 1024 (b64_mult mode_NE x y) = binary_overflow 53 1024 mode_NE (xorb (sgn x) (sgn y)).
Proof. exact (Bmult_correct 53 1024 Hprec53 Hmax1024 binop_nan_pl64 mode_NE). Qed.

Lemma sign_nonneg : forall r, (0 <= r)%R ->
  match Rcompare r 0 with Eq => false | Lt => true | Gt => false end = false.
Proof. intros r H. destruct (Rcompare_spec r 0); try reflexivity. lra. Qed.

(** the sign is settled here, once *)
Lemma norm_int_correct : forall (c : N) j,
  if Rlt_bool (Rabs (rnd64 (dy c j))) (bpow radix2 1024)
  then fin (f64_norm_int (Z.of_N c) j) = true /\ sgn (f64_norm_int (Z.of_N c) j) = false /\
       b2r (f64_norm_int (Z.of_N c) j) = rnd64 (dy c j)
  else f64_norm_int (Z.of_N c) j = f64c_pos_inf.
Proof.
  intros c j.
  pose proof (binary_normalize_correct 53 1024 Hprec53 Hmax1024 mode_NE (Z.of_N c) j false) as C.
  change (binary_normalize 53 1024 Hprec53 Hmax1024 mode_NE (Z.of_N c) j false) with (f64_norm_int (Z.of_N c) j) in C.
  change (round radix2 (SpecFloat.fexp 53 1024) (round_mode mode_NE)) with rnd64 in C.
  change (F2R {| Fnum := Z.of_N c; Fexp := j |}) with (dy c j) in C.
  destruct (Rlt_bool _ _).
  - destruct C as (V & F & S). rewrite (sign_nonneg _ (dy_nonneg c j)) in S. repeat split; assumption.
  - apply inf_of_B2FF. rewrite C, Rlt_bool_false; [reflexivity | apply dy_nonneg].
Qed.

(** ** addition *)

Lemma frep_add_as : forall x y a b j c j', frep x a j -> frep y b j -> dy (a + b) j = dy c j' ->
  (c <= 2 ^ 53)%N -> -1074 <= j' ->
  ((dy c j' < bpow radix2 1024)%R -> frep (f64c_add x y) c j') /\
  ((bpow radix2 1024 <= dy c j')%R -> f64c_add x y = f64c_pos_inf).
Proof.
  intros x y a b j c j' (Fx & Sx & Vx) (Fy & Sy & Vy) E Hc Hj.
  pose proof (add_correct x y Fx Fy) as C.
  rewrite Vx, Vy, <- dy_add, E, (dy_round _ _ Hc Hj), Rabs_dy in C. split.
  - intros Hlt. rewrite (Rlt_bool_true _ _ Hlt) in C.
    destruct C as (V & F & S). repeat split; try assumption.
    rewrite S, Sx, Sy. apply sign_nonneg, dy_nonneg.
  - intros Hge. rewrite (Rlt_bool_false _ _ Hge) in C.
    destruct C as (V & _). rewrite Sx in V. apply inf_of_B2FF. exact V.
Qed.

Theorem frep_add_cases : forall x y a b j, frep x a j -> frep y b j -> (a + b <= 2 ^ 53)%N -> (-1074 <= j)%Z ->
  ((dy (a + b) j < bpow radix2 1024)%R -> frep (f64c_add x y) (a + b) j) /\
  ((bpow radix2 1024 <= dy (a + b) j)%R -> f64c_add x y = f64c_pos_inf).
Proof. intros x y a b j Hx Hy. exact (frep_add_as x y a b j (a + b) j Hx Hy eq_refl). Qed.

Lemma frep_add : forall x y a b j, frep x a j -> frep y b j -> (a + b <= 2 ^ 53)%N -> -1074 <= j ->
  (dy (a + b) j < bpow radix2 1024)%R -> frep (f64c_add x y) (a + b) j.
Proof. intros x y a b j Hx Hy Hc Hj. apply (frep_add_cases x y a b j Hx Hy Hc Hj). Qed.

(** infinity absorbs non-negative operands *)
Lemma add_inf_l : forall y, fin y = true \/ y = f64c_pos_inf -> f64c_add f64c_pos_inf y = f64c_pos_inf.
Proof. intros y [F| ->]; [destruct y; try discriminate; reflexivity | reflexivity]. Qed.

Lemma add_inf_r : forall x, fin x = true \/ x = f64c_pos_inf -> f64c_add x f64c_pos_inf = f64c_pos_inf.
Proof. intros x [F| ->]; [destruct x; try discriminate; reflexivity | reflexivity]. Qed.

(** ** multiplication *)

Lemma frep_mult_cases : forall x y a b i j, frep x a i -> frep y b j -> (a * b <= 2 ^ 53)%N -> -1074 <= i + j ->
  ((dy (a * b) (i + j) < bpow radix2 1024)%R -> frep (b64_mult mode_NE x y) (a * b) (i + j)) /\
  ((bpow radix2 1024 <= dy (a * b) (i + j))%R -> b64_mult mode_NE x y = f64c_pos_inf).
Proof.
  intros x y a b i j (Fx & Sx & Vx) (Fy & Sy & Vy) Hc Hj.
  pose proof (mult_correct x y) as C.
  rewrite Vx, Vy, <- dy_mul, (dy_round _ _ Hc Hj), Rabs_dy, Fx, Fy, Sx, Sy in C. split.
  - intros Hlt. rewrite (Rlt_bool_true _ _ Hlt) in C.
    destruct C as (V & F & S). repeat split; try assumption.
    apply S. destruct (b64_mult mode_NE x y); try discriminate; reflexivity.
  - intros Hge. rewrite (Rlt_bool_false _ _ Hge) in C. apply inf_of_B2FF. exact C.
Qed.

(** ** conversion of integers, powers of two *)

Lemma norm_int_fin : forall (c : N) j, (c <= 2 ^ 53)%N -> -1074 <= j -> (dy c j < bpow radix2 1024)%R ->
  frep (f64_norm_int (Z.of_N c) j) c j.
Proof.
  intros c j Hc Hj Hlt. pose proof (norm_int_correct c j) as C.
  rewrite (dy_round _ _ Hc Hj), Rabs_dy, (Rlt_bool_true _ _ Hlt) in C. exact C.
Qed.

Lemma norm_int_ovf : forall (c : N) j, (c <= 2 ^ 53)%N -> -1074 <= j -> (bpow radix2 1024 <= dy c j)%R ->
  f64_norm_int (Z.of_N c) j = f64c_pos_inf.
Proof.
  intros c j Hc Hj Hge. pose proof (norm_int_correct c j) as C.
  rewrite (dy_round _ _ Hc Hj), Rabs_dy, (Rlt_bool_false _ _ Hge) in C. exact C.
Qed.

(** the conversion of [m * 2^e] does not depend on how the number is split
    into mantissa and exponent (the driver converts the oracle's pair [(m, e)]
    with [f64_norm_int]) *)
Theorem norm_int_shift : forall m e : N, f64_norm_int (Z.of_N m) (Z.of_N e) = f64_of_N (m * 2 ^ e).
Proof.
  intros m e. unfold f64_of_N.
  pose proof (norm_int_correct m (Z.of_N e)) as C1. pose proof (norm_int_correct (m * 2 ^ e) 0) as C2.
  rewrite dy_shift, Z.add_0_r in C2.
  destruct (Rlt_bool _ _).
  - destruct C1 as (F1 & S1 & V1). destruct C2 as (F2 & S2 & V2). apply B2R_Bsign_inj; congruence.
  - congruence.
Qed.

(** [f64::exp2] on integers *)
Lemma exp2i_rep : forall k, -1074 <= k <= 1023 -> frep (f64_exp2i k) 1 k.
Proof.
  intros k Hk. unfold f64_exp2i.
  destruct (Z.leb_spec 1024 k); [lia|]. destruct (Z.ltb_spec k (-1075)); [lia|].
  apply (norm_int_fin 1 k); [change (2 ^ 53)%N with 9007199254740992%N; lia | lia |].
  unfold dy. change (IZR (Z.of_N 1)) with 1%R. rewrite Rmult_1_l. apply bpow_lt. lia.
Qed.

Lemma exp2i_inf : forall k, 1024 <= k -> f64_exp2i k = f64c_pos_inf.
Proof. intros k Hk. unfold f64_exp2i. destruct (Z.leb_spec 1024 k); [reflexivity | lia]. Qed.

Lemma exp2i_zero : forall k, k <= -1075 -> f64_exp2i k = f64c_pos_zero.
Proof.
  intros k Hk. unfold f64_exp2i. destruct (Z.leb_spec 1024 k); [lia|].
  destruct (Z.ltb_spec k (-1075)); [reflexivity|]. replace k with (-1075) by lia. vm_compute. reflexivity.
Qed.

(** ** the two shifts *)

Lemma dy_one : forall c i j, dy (c * 1) (i + j) = dy c (i + j).
Proof. intros. rewrite N.mul_1_r. reflexivity. Qed.

Lemma frep_scale : forall x c j k, frep x c j -> (c <= 2 ^ 53)%N -> -1074 <= k <= 1023 -> -1074 <= j + k ->
  ((dy c (j + k) < bpow radix2 1024)%R -> frep (b64_mult mode_NE x (f64_exp2i k)) c (j + k)) /\
  ((bpow radix2 1024 <= dy c (j + k))%R -> b64_mult mode_NE x (f64_exp2i k) = f64c_pos_inf).
Proof.
  intros x c j k Hx Hc Hk Hj. pose proof (frep_mult_cases x _ c 1 j k Hx (exp2i_rep k Hk)) as C.
  rewrite N.mul_1_r in C. exact (C Hc Hj).
Qed.

Lemma mult_inf_pos : forall y c j, frep y c j -> c <> 0%N ->
  b64_mult mode_NE f64c_pos_inf y = f64c_pos_inf /\ b64_mult mode_NE y f64c_pos_inf = f64c_pos_inf.
Proof.
  intros y c j (F & S & V) Hnz. pose proof (dy_pos c j Hnz) as P.
  destruct y; try discriminate.
  - exfalso. simpl in V. lra.
  - simpl in S. subst s. split; reflexivity.
Qed.

(** [x << k] for [k <= 1023]: the exact product if it is below [2^1024] ... *)
Lemma frep_shl : forall x c j (k : N), frep x c j -> (c <= 2 ^ 53)%N -> -1074 <= j -> (k <= 1023)%N ->
  (dy c (j + Z.of_N k) < bpow radix2 1024)%R -> frep (f64c_shl x k) c (j + Z.of_N k).
Proof.
  intros x c j k Hx Hc Hj Hk Hlt. unfold f64c_shl. rewrite (frep_is_zero x c j Hx).
  destruct (N.eqb_spec c 0) as [->|Hnz].
  - apply (frep_ext x 0 j); [exact Hx | rewrite !dy_0; reflexivity].
  - apply (frep_scale x c j (Z.of_N k) Hx Hc); [lia | lia | exact Hlt].
Qed.

(** ... and [+inf] otherwise (for [k >= 1024] the operand must be at least 1) *)
Lemma frep_shl_ovf : forall x c j (k : N), frep x c j -> (c <= 2 ^ 53)%N -> -1074 <= j -> c <> 0%N ->
  ((k <= 1023)%N -> (bpow radix2 1024 <= dy c (j + Z.of_N k))%R) ->
  ((1024 <= k)%N -> 0 <= j) ->
  f64c_shl x k = f64c_pos_inf.
Proof.
  intros x c j k Hx Hc Hj Hnz Hge Hbig. unfold f64c_shl. rewrite (frep_is_zero x c j Hx).
  destruct (N.eqb_spec c 0) as [|_]; [contradiction|].
  destruct (N.le_gt_cases k 1023) as [Hk|Hk].
  - apply (frep_scale x c j (Z.of_N k) Hx Hc); [lia | lia | exact (Hge Hk)].
  - rewrite exp2i_inf by lia. apply (mult_inf_pos x c j Hx Hnz).
Qed.

(** [x >> k] (for [k >= 1075] the factor [exp2(-k)] is 0) *)
Lemma frep_shr : forall x c j (k : N), frep x c j -> (c <= 2 ^ 53)%N -> (k <= 1074)%N -> -1074 <= j - Z.of_N k ->
  frep (f64c_shr x k) c (j - Z.of_N k).
Proof.
  intros x c j k Hx Hc Hk Hj. unfold f64c_shr.
  apply (frep_scale x c j (- Z.of_N k) Hx Hc); [lia | exact Hj |].
  eapply Rle_lt_trans; [|exact (frep_lt_emax x c j Hx)]. unfold dy.
  apply Rmult_le_compat_l; [apply IZR_N_nonneg|]. apply bpow_le. lia.
Qed.

(** ** [v as f64] *)

Lemma dy_N : forall c (m : N), dy c (Z.of_N m) = IZR (Z.of_N (c * 2 ^ m)).
Proof. intros. rewrite <- dy_int, dy_shift, Z.add_0_r. reflexivity. Qed.

Lemma dy_N_lt : forall c m p : N, (c * 2 ^ m < 2 ^ p)%N <-> (dy c (Z.of_N m) < bpow radix2 (Z.of_N p))%R.
Proof.
  intros. rewrite dy_N, <- IZR_N_pow2. split; [intros H; apply IZR_lt; lia | intros H; apply lt_IZR in H; lia].
Qed.

Lemma dy_N_ge : forall c m p : N, (2 ^ p <= c * 2 ^ m)%N -> (bpow radix2 (Z.of_N p) <= dy c (Z.of_N m))%R.
Proof. intros c m p H. rewrite dy_N. apply IZR_N_ge_bpow. exact H. Qed.

Lemma of_N_rep : forall c (j : N), (c <= 2 ^ 53)%N -> (c * 2 ^ j < 2 ^ 1024)%N ->
  frep (f64_of_N (c * 2 ^ j)) c (Z.of_N j).
Proof.
  intros c j Hc Hlt. rewrite <- norm_int_shift.
  apply norm_int_fin; [exact Hc | lia | apply (dy_N_lt c j 1024); exact Hlt].
Qed.

Lemma of_N_ovf : forall c (j : N), (c <= 2 ^ 53)%N -> (2 ^ 1024 <= c * 2 ^ j)%N ->
  f64_of_N (c * 2 ^ j) = f64c_pos_inf.
Proof.
  intros c j Hc Hge. rewrite <- norm_int_shift.
  apply norm_int_ovf; [exact Hc | lia | apply (dy_N_ge c j 1024); exact Hge].
Qed.

Lemma of_N_small : forall v, (v <= 2 ^ 53)%N -> frep (f64_of_N v) v 0.
Proof.
  intros v Hv. pose proof (of_N_rep v 0 Hv) as H. rewrite N.pow_0_r, N.mul_1_r in H. apply H.
  eapply N.le_lt_trans; [exact Hv|]. apply N.pow_lt_mono_r; lia.
Qed.

Lemma shr_inf : forall k : N, (k <= 1074)%N -> f64c_shr f64c_pos_inf k = f64c_pos_inf.
Proof.
  intros k Hk. unfold f64c_shr. apply (mult_inf_pos _ 1 (- Z.of_N k)); [apply exp2i_rep; lia | discriminate].
Qed.

Lemma shl_inf : forall k : N, f64c_shl f64c_pos_inf k = f64c_pos_inf.
Proof.
  intros k. unfold f64c_shl. simpl f64c_is_zero. cbv iota.
  destruct (N.le_gt_cases k 1023) as [Hk|Hk].
  - apply (mult_inf_pos _ 1 (Z.of_N k)); [apply exp2i_rep; lia | discriminate].
  - rewrite exp2i_inf by lia. reflexivity.
Qed.

(** a represented value is the conversion of the integer it denotes *)
Lemma rep_of_N : forall x c (m : N), frep x c (Z.of_N m) -> (c <= 2 ^ 53)%N -> x = f64_of_N (c * 2 ^ m).
Proof.
  intros x c m Hx Hc. apply (frep_unique _ _ c (Z.of_N m) Hx). apply of_N_rep; [exact Hc|].
  apply (dy_N_lt c m 1024). exact (frep_lt_emax x c _ Hx).
Qed.

(** [x << k] of a represented value is the correctly rounded conversion of the
    exact integer product (for [k >= 1024]: of operands that are at least 1) *)
Lemma shl_of_N : forall x c j (k m : N), frep x c j -> (c <= 2 ^ 53)%N -> -1074 <= j ->
  j + Z.of_N k = Z.of_N m -> ((1024 <= k)%N -> 0 <= j) ->
  f64c_shl x k = f64_of_N (c * 2 ^ m).
Proof.
  intros x c j k m Hx Hc Hj Hm Hbig.
  destruct (N.eq_dec c 0) as [->|Hnz].
  - unfold f64c_shl. rewrite (frep_is_zero x 0 j Hx). simpl. rewrite (frep_zero x j Hx).
    symmetry. apply (frep_zero _ 0). apply of_N_small. change (2 ^ 53)%N with 9007199254740992%N. lia.
  - assert (Hov : (2 ^ 1024 <= c * 2 ^ m)%N -> f64c_shl x k = f64_of_N (c * 2 ^ m)).
    { intros Hge. rewrite (of_N_ovf c m Hc Hge). apply (frep_shl_ovf x c j k Hx Hc Hj Hnz); [|exact Hbig].
      intros _. rewrite Hm. apply (dy_N_ge c m 1024). exact Hge. }
    destruct (N.le_gt_cases k 1023) as [Hk|Hk].
    + destruct (N.lt_ge_cases (c * 2 ^ m) (2 ^ 1024)) as [Hlt|Hge]; [|exact (Hov Hge)].
      apply rep_of_N; [|exact Hc]. rewrite <- Hm. apply frep_shl; try assumption.
      rewrite Hm. apply (dy_N_lt c m 1024). exact Hlt.
    + apply Hov. specialize (Hbig ltac:(lia)).
      apply N.le_trans with (1 * 2 ^ m)%N; [|apply N.mul_le_mono_r; lia].
      rewrite N.mul_1_l. apply N.pow_le_mono_r; lia.
Qed.

(** ** The operations in general: Flocq's correctly rounded results *)

Theorem f64c_add_round : forall x y, fin x = true -> fin y = true ->
  (Rabs (rnd64 (b2r x + b2r y)) < bpow radix2 1024)%R ->
  fin (f64c_add x y) = true /\ b2r (f64c_add x y) = rnd64 (b2r x + b2r y).
Proof.
  intros x y Fx Fy Hlt. pose proof (add_correct x y Fx Fy) as C.
  rewrite (Rlt_bool_true _ _ Hlt) in C. destruct C as (V & F & _). split; assumption.
Qed.

Theorem f64c_add_overflow : forall x y, fin x = true -> fin y = true ->
  (bpow radix2 1024 <= Rabs (rnd64 (b2r x + b2r y)))%R ->
  sgn x = sgn y /\ f64c_add x y = B754_infinity 53 1024 (sgn x).
Proof.
  intros x y Fx Fy Hge. pose proof (add_correct x y Fx Fy) as C.
  rewrite (Rlt_bool_false _ _ Hge) in C. destruct C as (V & S). split; [exact S|].
  destruct (f64c_add x y); try discriminate. simpl in V. inversion V. reflexivity.
Qed.

Lemma scale_round : forall x k, fin x = true -> -1074 <= k <= 1023 ->
  (Rabs (rnd64 (b2r x * bpow radix2 k)) < bpow radix2 1024)%R ->
  fin (b64_mult mode_NE x (f64_exp2i k)) = true /\
  b2r (b64_mult mode_NE x (f64_exp2i k)) = rnd64 (b2r x * bpow radix2 k).
Proof.
  intros x k Fx Hk Hlt. pose proof (mult_correct x (f64_exp2i k)) as C.
  destruct (exp2i_rep k Hk) as (Fe & _ & Ve).
  assert (E : b2r (f64_exp2i k) = bpow radix2 k) by (rewrite Ve; unfold dy; simpl IZR; ring).
  rewrite E, (Rlt_bool_true _ _ Hlt), Fx, Fe in C. destruct C as (V & F & _). split; assumption.
Qed.

Theorem f64c_shl_round : forall x (k : N), fin x = true -> (k <= 1023)%N ->
  (Rabs (rnd64 (b2r x * bpow radix2 (Z.of_N k))) < bpow radix2 1024)%R ->
  fin (f64c_shl x k) = true /\ b2r (f64c_shl x k) = rnd64 (b2r x * bpow radix2 (Z.of_N k)).
Proof.
  intros x k Fx Hk Hlt. unfold f64c_shl. destruct (f64c_is_zero x) eqn:Z.
  - split; [exact Fx|]. destruct x; try discriminate. simpl. rewrite Rmult_0_l, round_0; [reflexivity | apply valid_rnd_N].
  - apply scale_round; [exact Fx | lia | exact Hlt].
Qed.

Theorem f64c_shr_round : forall x (k : N), fin x = true -> (k <= 1074)%N ->
  fin (f64c_shr x k) = true /\ b2r (f64c_shr x k) = rnd64 (b2r x * bpow radix2 (- Z.of_N k)).
Proof.
  intros x k Fx Hk. apply scale_round; [exact Fx | lia |].
  apply Rle_lt_trans with (Rabs (b2r x)); [|apply abs_B2R_lt_emax].
  apply abs_round_le_generic; [apply (@FLT_exp_valid (-1074) 53 Hprec53) | apply valid_rnd_N | |].
  - apply generic_format_abs. apply (generic_format_B2R 53 1024).
  - rewrite Rabs_mult, (Rabs_pos_eq (bpow radix2 _)) by apply bpow_ge_0.
    rewrite <- (Rmult_1_r (Rabs (b2r x))) at 2. apply Rmult_le_compat_l; [apply Rabs_pos|].
    change 1%R with (bpow radix2 0). apply bpow_le. lia.
Qed.

(** [v as f64] is the correctly rounded integer *)
Theorem f64_of_N_round : forall v, (Rabs (rnd64 (IZR (Z.of_N v))) < bpow radix2 1024)%R ->
  fin (f64_of_N v) = true /\ sgn (f64_of_N v) = false /\ b2r (f64_of_N v) = rnd64 (IZR (Z.of_N v)).
Proof.
  intros v Hlt. pose proof (norm_int_correct v 0) as C.
  rewrite dy_int, (Rlt_bool_true _ _ Hlt) in C. exact C.
Qed.

Theorem f64_of_N_overflow : forall v, (bpow radix2 1024 <= Rabs (rnd64 (IZR (Z.of_N v))))%R ->
  f64_of_N v = f64c_pos_inf.
Proof.
  intros v Hge. pose proof (norm_int_correct v 0) as C.
  rewrite dy_int, (Rlt_bool_false _ _ Hge) in C. exact C.
Qed.

(** exact conversions: every integer with at most 53 significant bits below [2^1024] *)
Theorem f64_of_N_exact : forall c j : N, (c <= 2 ^ 53)%N -> (c * 2 ^ j < 2 ^ 1024)%N ->
  fin (f64_of_N (c * 2 ^ j)) = true /\ b2r (f64_of_N (c * 2 ^ j)) = IZR (Z.of_N (c * 2 ^ j)).
Proof.
  intros c j Hc Hlt. destruct (of_N_rep c j Hc Hlt) as (F & _ & V). split; [exact F|].
  rewrite V. apply dy_N.
Qed.

(** ** Examples *)
Example ex_f64c_ops :
  f64c_bits_from_u32 1 = 0x3ff0000000000000 /\
  f64c_bits_shl (f64c_bits_from_u32 1) 1023 = 0x7fe0000000000000 /\
  f64c_bits_shl (f64c_bits_from_u32 1) 1024 = 0x7ff0000000000000 /\
  f64c_bits_shl 0 5000 = 0 /\
  f64c_bits_shr (f64c_bits_from_u32 1) 1074 = 1 /\
  f64c_bits_shr (f64c_bits_from_u32 1) 1075 = 0 /\
  f64c_bits_add (f64c_bits_from_u32 1) (f64c_bits_from_u32 2) = 0x4008000000000000 /\
  f64c_bits_add 0x4340000000000000 (f64c_bits_from_u32 1) = 0x4340000000000000 /\
  f64c_bits_sub (f64c_bits_from_u32 1) (f64c_bits_from_u32 2) = 0xbff0000000000000 /\
  f64c_bits_is_nan (f64c_bits_sub 0x7ff0000000000000 0x7ff0000000000000) = true /\
  f64c_bits_of_N (2 ^ 53 + 1) = 0x4340000000000000.
Proof. vm_compute. repeat split; reflexivity. Qed.

Theorem frep_shl_cases : forall x c j (k : N), frep x c j -> (c <= 2 ^ 53)%N -> (-1074 <= j)%Z -> (k <= 1023)%N ->
  ((dy c (j + Z.of_N k) < bpow radix2 1024)%R -> frep (f64c_shl x k) c (j + Z.of_N k)) /\
  (c <> 0%N -> (bpow radix2 1024 <= dy c (j + Z.of_N k))%R -> f64c_shl x k = f64c_pos_inf).
Proof.
  intros x c j k Hx Hc Hj Hk. split.
  - intros Hb. apply frep_shl; assumption.
  - intros Hnz Hb. apply (frep_shl_ovf x c j k Hx Hc Hj Hnz); [intros _; exact Hb | lia].
Qed.

Theorem f64c_sub_round : forall x y, fin x = true -> fin y = true ->
  (Rabs (rnd64 (b2r x - b2r y)) < bpow radix2 1024)%R ->
  fin (f64c_sub x y) = true /\ b2r (f64c_sub x y) = rnd64 (b2r x - b2r y).
Proof.
  intros x y Fx Fy Hlt.
  pose proof (Bminus_correct 53 1024 Hprec53 Hmax1024 binop_nan_pl64 mode_NE x y Fx Fy) as C.
  change (Bminus 53 1024 Hprec53 Hmax1024 binop_nan_pl64 mode_NE x y) with (f64c_sub x y) in C.
  change (round radix2 (SpecFloat.fexp 53 1024) (round_mode mode_NE)) with rnd64 in C.
  rewrite (Rlt_bool_true _ _ Hlt) in C. destruct C as (V & F & _). split; assumption.
Qed.

(** the hypotheses of the exactness lemmas are satisfiable: 5 + 3 = 8, 5 << 1020, 5 << 1022 = +inf, 6 >> 1 = 3 *)
Example ex_frep :
  frep (f64_of_N 5) 5 0 /\ frep (f64c_add (f64_of_N 5) (f64_of_N 3)) 8 0 /\
  frep (f64c_shl (f64_of_N 5) 1020) 5 1020 /\ f64c_shl (f64_of_N 5) 1022 = f64c_pos_inf /\
  frep (f64c_shr (f64_of_N 6) 1) 6 (-1) /\ f64c_shr (f64_of_N 6) 1 = f64_of_N 3.
Proof.
  assert (H5 : frep (f64_of_N 5) 5 0) by (apply of_N_small; discriminate).
  assert (H3 : frep (f64_of_N 3) 3 0) by (apply of_N_small; discriminate).
  assert (H6 : frep (f64_of_N 6) 6 0) by (apply of_N_small; discriminate).
  split; [exact H5|]. split; [|split; [|split; [|split]]].
  - apply (frep_add _ _ 5 3 0 H5 H3); [discriminate | lia |].
    rewrite dy_int. apply (IZR_N_lt_bpow 8 1024). reflexivity.
  - apply (frep_shl _ 5 0 1020 H5); [discriminate | lia | discriminate |].
    change (0 + Z.of_N 1020)%Z with (Z.of_N 1020 + 0)%Z. rewrite <- dy_shift, dy_int.
    apply (IZR_N_lt_bpow (5 * 2 ^ 1020) 1024). reflexivity.
  - vm_compute. reflexivity.
  - apply (frep_shr _ 6 0 1 H6); [discriminate | discriminate | lia].
  - apply (frep_unique _ _ 6 (-1)).
    + apply (frep_shr _ 6 0 1 H6); [discriminate | discriminate | lia].
    + apply (frep_ext _ 3 0 _ _ H3). unfold dy. simpl. lra.
Qed.
