(** C10, scalar level — theorems about the [I64] model of [Num/I64.v].

    Naming scheme (shared with [Num/F64Proofs.v], prefix [f64_]):
      [i64_add_spec] ...          model = clamp (exact extended-integer result)
      [i64_add_wf] ...            closure: results are values of the Rust type
      [i64_add_zero_l] ...        short-cut laws used by [terminal_bin]
      [i64_add_nan_l/_r] ...      NaN absorbing
      [i64_add_comm] ...          operand swap of the cache normalisation
      [..._refuted]               a short-cut arm of [terminal_bin] that is not a law *)
From Coq Require Import ZArith Bool Lia.
From OxiVerif Require Import Num.I64.
Local Open Scope Z_scope.

Arguments Z.add : simpl never.
Arguments Z.sub : simpl never.
Arguments Z.mul : simpl never.
Arguments Z.quot : simpl never.
Arguments Z.pow : simpl never.

(** ** range predicate *)

Lemma pow63 : 2 ^ 63 = 9223372036854775808.
Proof. reflexivity. Qed.

Lemma in_i64b_true z : in_i64b z = true <-> in_i64 z.
Proof.
  unfold in_i64b, in_i64, i64_MIN, i64_MAX. rewrite pow63.
  rewrite andb_true_iff, !Z.leb_le. lia.
Qed.

Lemma in_i64b_false z : in_i64b z = false <-> (z < - 2 ^ 63 \/ 2 ^ 63 <= z).
Proof.
  unfold in_i64b, i64_MIN, i64_MAX. rewrite pow63.
  rewrite andb_false_iff, !Z.leb_gt. lia.
Qed.

Lemma wfb_true a : wfb a = true <-> wf a.
Proof. destruct a; simpl; try tauto. apply in_i64b_true. Qed.

Lemma in_i64_MIN : in_i64 i64_MIN.
Proof. unfold in_i64, i64_MIN. rewrite pow63. lia. Qed.
Lemma in_i64_MAX : in_i64 i64_MAX.
Proof. unfold in_i64, i64_MAX. rewrite pow63. lia. Qed.

(** [checked_*] return the exact result exactly when it is representable *)
Lemma checked_add_some x y : in_i64 (x + y) -> checked_add x y = Some (x + y).
Proof. intros H. unfold checked_add. apply in_i64b_true in H. now rewrite H. Qed.
Lemma checked_add_none x y : ~ in_i64 (x + y) -> checked_add x y = None.
Proof.
  intros H. unfold checked_add. destruct (in_i64b (x + y)) eqn:E; trivial.
  apply in_i64b_true in E. contradiction.
Qed.
Lemma checked_sub_some x y : in_i64 (x - y) -> checked_sub x y = Some (x - y).
Proof. intros H. unfold checked_sub. apply in_i64b_true in H. now rewrite H. Qed.
Lemma checked_sub_none x y : ~ in_i64 (x - y) -> checked_sub x y = None.
Proof.
  intros H. unfold checked_sub. destruct (in_i64b (x - y)) eqn:E; trivial.
  apply in_i64b_true in E. contradiction.
Qed.
Lemma checked_mul_some x y : in_i64 (x * y) -> checked_mul x y = Some (x * y).
Proof. intros H. unfold checked_mul. apply in_i64b_true in H. now rewrite H. Qed.
Lemma checked_mul_none x y : ~ in_i64 (x * y) -> checked_mul x y = None.
Proof.
  intros H. unfold checked_mul. destruct (in_i64b (x * y)) eqn:E; trivial.
  apply in_i64b_true in E. contradiction.
Qed.

(** ** clamp *)

Lemma clamp_wf a : wf (clamp a).
Proof.
  destruct a; simpl; trivial.
  destruct (in_i64b z) eqn:E.
  - simpl. now apply in_i64b_true.
  - destruct (Z.sgn z); simpl; trivial.
Qed.

Lemma clamp_id a : wf a -> clamp a = a.
Proof.
  destruct a; simpl; trivial. intros H. apply in_i64b_true in H. now rewrite H.
Qed.

Lemma clamp_idem a : clamp (clamp a) = clamp a.
Proof. apply clamp_id, clamp_wf. Qed.

Lemma clamp_num_in z : in_i64 z -> clamp (INum z) = INum z.
Proof. intros H. now apply (clamp_id (INum z)). Qed.
Lemma clamp_num_hi z : 2 ^ 63 <= z -> clamp (INum z) = IPlusInf.
Proof.
  intros H. simpl. replace (in_i64b z) with false.
  - rewrite Z.sgn_pos; trivial. rewrite pow63 in H. lia.
  - symmetry. apply in_i64b_false. lia.
Qed.
Lemma clamp_num_lo z : z < - 2 ^ 63 -> clamp (INum z) = IMinusInf.
Proof.
  intros H. simpl. replace (in_i64b z) with false.
  - rewrite Z.sgn_neg; trivial. rewrite pow63 in H. lia.
  - symmetry. apply in_i64b_false. lia.
Qed.

(** ** add / sub / mul: the model returns the exact result when representable,
    otherwise the infinity of the exact result's sign *)

Theorem i64_add_spec a b : wf a -> wf b -> i64_add a b = clamp (ext_add a b).
Proof.
  destruct a as [| |x|], b as [| |y|]; simpl; trivial. intros Hx Hy.
  unfold checked_add. destruct (in_i64b (x + y)) eqn:E; trivial.
  apply in_i64b_false in E. unfold in_i64 in Hx, Hy. rewrite pow63 in *.
  destruct (0 <? x) eqn:Ex, (0 <? y) eqn:Ey; simpl;
    rewrite ?Z.ltb_lt, ?Z.ltb_ge in Ex, Ey.
  - rewrite Z.sgn_pos by lia. reflexivity.
  - rewrite Z.sgn_neg by lia. reflexivity.
  - rewrite Z.sgn_neg by lia. reflexivity.
  - rewrite Z.sgn_neg by lia. reflexivity.
Qed.

Theorem i64_sub_spec a b : wf a -> wf b -> i64_sub a b = clamp (ext_sub a b).
Proof.
  destruct a as [| |x|], b as [| |y|]; simpl; trivial. intros Hx Hy.
  unfold checked_sub. replace (x + - y) with (x - y) by lia.
  destruct (in_i64b (x - y)) eqn:E; trivial.
  apply in_i64b_false in E. unfold in_i64 in Hx, Hy. rewrite pow63 in *.
  destruct (0 <=? x) eqn:Ex, (y <? 0) eqn:Ey; simpl;
    rewrite ?Z.leb_le, ?Z.leb_gt, ?Z.ltb_lt, ?Z.ltb_ge in Ex, Ey.
  - rewrite Z.sgn_pos by lia. reflexivity.
  - rewrite Z.sgn_neg by lia. reflexivity.
  - rewrite Z.sgn_neg by lia. reflexivity.
  - rewrite Z.sgn_neg by lia. reflexivity.
Qed.

Lemma sgn_cases z : (z < 0 /\ Z.sgn z = -1) \/ (z = 0 /\ Z.sgn z = 0) \/ (0 < z /\ Z.sgn z = 1).
Proof. destruct z; simpl; lia. Qed.

Theorem i64_mul_spec a b : wf a -> wf b -> i64_mul a b = clamp (ext_mul a b).
Proof.
  destruct a as [| |x|], b as [| |y|]; simpl; trivial.
  - (* -inf * finite *)
    intros _ _. destruct (sgn_cases y) as [[_ ->]|[[_ ->]| [_ ->]]]; reflexivity.
  - intros _ _. destruct (sgn_cases x) as [[_ ->]|[[_ ->]| [_ ->]]]; reflexivity.
  - (* finite * finite *)
    intros Hx Hy. unfold checked_mul.
    destruct (in_i64b (x * y)) eqn:E; trivial.
    apply in_i64b_false in E. rewrite pow63 in E.
    rewrite Z.sgn_mul.
    destruct (sgn_cases x) as [[Hx' ->]|[[Hx' ->]| [Hx' ->]]];
    destruct (sgn_cases y) as [[Hy' ->]|[[Hy' ->]| [Hy' ->]]];
      try (exfalso; subst; lia).
    + replace (0 <? x) with false by (symmetry; apply Z.ltb_ge; lia).
      replace (x <? 0) with true by (symmetry; apply Z.ltb_lt; lia).
      replace (y <? 0) with true by (symmetry; apply Z.ltb_lt; lia).
      reflexivity.
    + replace (0 <? x) with false by (symmetry; apply Z.ltb_ge; lia).
      replace (y <? 0) with false by (symmetry; apply Z.ltb_ge; lia).
      rewrite andb_false_r. reflexivity.
    + replace (0 <? y) with false by (symmetry; apply Z.ltb_ge; lia).
      replace (x <? 0) with false by (symmetry; apply Z.ltb_ge; lia).
      rewrite andb_false_r. reflexivity.
    + replace (0 <? x) with true by (symmetry; apply Z.ltb_lt; lia).
      replace (0 <? y) with true by (symmetry; apply Z.ltb_lt; lia).
      reflexivity.
  - intros _ _. destruct (sgn_cases x) as [[_ ->]|[[_ ->]| [_ ->]]]; reflexivity.
  - intros _ _. destruct (sgn_cases y) as [[_ ->]|[[_ ->]| [_ ->]]]; reflexivity.
Qed.

(** the [unwrap()] calls in the last arm of [Mul] can not panic: [signum] is
    [Some] for every non-NaN value *)
Lemma i64_signum_some a : a <> INaN -> exists s, i64_signum a = Some s /\ s = ext_sgn a.
Proof. destruct a; simpl; intros H; try congruence; eauto. Qed.

Lemma i64_mul_unwrap_reachable a b :
  a <> INaN -> b <> INaN -> i64_signum a <> None /\ i64_signum b <> None.
Proof. destruct a, b; simpl; intros; split; congruence. Qed.

(** ** div *)

Lemma quot_in_range x y :
  in_i64 x -> y <> 0 -> ~ (x = i64_MIN /\ y = -1) -> in_i64 (Z.quot x y).
Proof.
  unfold in_i64, i64_MIN. rewrite pow63. intros Hx Hy Hm.
  destruct (Z.eq_dec (Z.abs y) 1) as [Hy1|Hy1].
  - (* y = 1 or y = -1: the quotient is x or -x *)
    assert (Ey : y = 1 \/ y = -1) by lia. destruct Ey as [-> | ->].
    + rewrite Z.quot_1_r. exact Hx.
    + change (-1) with (- (1)). rewrite Z.quot_opp_r, Z.quot_1_r by discriminate. lia.
  - (* |y| >= 2: the quotient is at most |x| / 2 in absolute value *)
    assert (Hq : Z.abs (Z.quot x y) = Z.abs x / Z.abs y).
    { rewrite <- Z.quot_abs by exact Hy. apply Z.quot_div_nonneg; lia. }
    assert (Z.abs x / Z.abs y <= Z.abs x / 2) by (apply Z.div_le_compat_l; lia).
    assert (Z.abs x / 2 <= 4611686018427387904) by (apply Z.div_le_upper_bound; lia).
    lia.
Qed.

Theorem i64_div_spec a b : wf a -> wf b -> i64_div a b = clamp (ext_div a b).
Proof.
  destruct a as [| |x|], b as [| |y|]; simpl; trivial.
  - intros _ _. destruct (y <? 0); reflexivity.
  - intros Hx Hy. destruct (y =? 0) eqn:Ey.
    + destruct x; reflexivity.
    + apply Z.eqb_neq in Ey.
      destruct ((x =? i64_MIN) && (y =? -1)) eqn:Em.
      * apply andb_true_iff in Em. destruct Em as [E1 E2].
        apply Z.eqb_eq in E1, E2. subst. reflexivity.
      * symmetry. apply clamp_num_in. apply quot_in_range; trivial.
        intros [E1 E2]. subst. discriminate.
  - intros _ _. destruct (y <? 0); reflexivity.
Qed.

(** the individual clauses of the property text *)
Theorem i64_div_trunc x y :
  in_i64 x -> in_i64 y -> y <> 0 -> ~ (x = i64_MIN /\ y = -1) ->
  i64_div (INum x) (INum y) = INum (Z.quot x y) /\ in_i64 (Z.quot x y) /\
  (* truncation toward zero: magnitude = floor of the magnitudes' quotient,
     sign = product of the signs *)
  Z.quot x y = Z.sgn x * Z.sgn y * (Z.abs x / Z.abs y).
Proof.
  intros Hx Hy Hy0 Hm. split; [|split].
  - simpl. replace (y =? 0) with false by (symmetry; now apply Z.eqb_neq).
    destruct ((x =? i64_MIN) && (y =? -1)) eqn:Em; trivial.
    apply andb_true_iff in Em. destruct Em as [E1 E2].
    apply Z.eqb_eq in E1, E2. tauto.
  - now apply quot_in_range.
  - now apply Z.quot_div.
Qed.

Theorem i64_div_zero x :
  i64_div (INum x) (INum 0) =
  if x <? 0 then IMinusInf else if x =? 0 then INaN else IPlusInf.
Proof. destruct x; reflexivity. Qed.

Theorem i64_div_min_m1 : i64_div (INum i64_MIN) (INum (-1)) = IPlusInf.
Proof. reflexivity. Qed.

Theorem i64_div_inf_inf :
  i64_div IPlusInf IPlusInf = INaN /\ i64_div IPlusInf IMinusInf = INaN /\
  i64_div IMinusInf IPlusInf = INaN /\ i64_div IMinusInf IMinusInf = INaN.
Proof. repeat split. Qed.

Theorem i64_div_fin_inf x :
  i64_div (INum x) IPlusInf = INum 0 /\ i64_div (INum x) IMinusInf = INum 0.
Proof. split; reflexivity. Qed.

Theorem i64_div_inf_fin y :
  i64_div IPlusInf (INum y) = (if y <? 0 then IMinusInf else IPlusInf) /\
  i64_div IMinusInf (INum y) = (if y <? 0 then IPlusInf else IMinusInf).
Proof. split; reflexivity. Qed.

(** the undefined forms give NaN *)
Theorem i64_undefined_forms :
  i64_add IPlusInf IMinusInf = INaN /\ i64_add IMinusInf IPlusInf = INaN /\
  i64_sub IPlusInf IPlusInf = INaN /\ i64_sub IMinusInf IMinusInf = INaN /\
  i64_mul (INum 0) IPlusInf = INaN /\ i64_mul (INum 0) IMinusInf = INaN /\
  i64_mul IPlusInf (INum 0) = INaN /\ i64_mul IMinusInf (INum 0) = INaN /\
  i64_div (INum 0) (INum 0) = INaN /\
  i64_div IPlusInf IPlusInf = INaN /\ i64_div IPlusInf IMinusInf = INaN /\
  i64_div IMinusInf IPlusInf = INaN /\ i64_div IMinusInf IMinusInf = INaN.
Proof. repeat split. Qed.

(** ** closure *)

Theorem i64_add_wf a b : wf a -> wf b -> wf (i64_add a b).
Proof. intros. rewrite i64_add_spec by trivial. apply clamp_wf. Qed.
Theorem i64_sub_wf a b : wf a -> wf b -> wf (i64_sub a b).
Proof. intros. rewrite i64_sub_spec by trivial. apply clamp_wf. Qed.
Theorem i64_mul_wf a b : wf a -> wf b -> wf (i64_mul a b).
Proof. intros. rewrite i64_mul_spec by trivial. apply clamp_wf. Qed.
Theorem i64_div_wf a b : wf a -> wf b -> wf (i64_div a b).
Proof. intros. rewrite i64_div_spec by trivial. apply clamp_wf. Qed.

(** ** order *)

Theorem i64_partial_cmp_spec a b : i64_partial_cmp a b = ext_cmp a b.
Proof. destruct a, b; reflexivity. Qed.

Theorem i64_cmp_num x y : i64_partial_cmp (INum x) (INum y) = Some (x ?= y).
Proof. reflexivity. Qed.

Theorem i64_cmp_refl a : i64_partial_cmp a a = Some Eq.
Proof. destruct a; simpl; trivial. now rewrite Z.compare_refl. Qed.

Theorem i64_cmp_eq_iff a b : i64_partial_cmp a b = Some Eq <-> a = b.
Proof.
  split.
  - destruct a, b; simpl; intros H; try discriminate; trivial.
    injection H as H. apply Z.compare_eq in H. now subst.
  - intros ->. apply i64_cmp_refl.
Qed.

(** NaN is incomparable to everything but itself, and nothing else is incomparable *)
Theorem i64_cmp_none_iff a b :
  i64_partial_cmp a b = None <-> ((a = INaN /\ b <> INaN) \/ (a <> INaN /\ b = INaN)).
Proof.
  destruct a, b; simpl; split; intros H; try discriminate; trivial;
    try (left; split; congruence); try (right; split; congruence);
    destruct H as [[? ?]|[? ?]]; congruence.
Qed.

Theorem i64_cmp_antisym a b :
  i64_partial_cmp b a = option_map CompOpp (i64_partial_cmp a b).
Proof. destruct a, b; simpl; trivial. now rewrite Z.compare_antisym. Qed.

Theorem i64_cmp_lt_trans a b c :
  i64_partial_cmp a b = Some Lt -> i64_partial_cmp b c = Some Lt ->
  i64_partial_cmp a c = Some Lt.
Proof.
  destruct a as [| |x|], b as [| |y|], c as [| |z|]; simpl; intros H1 H2;
    try discriminate; trivial.
  injection H1 as H1. injection H2 as H2. f_equal.
  rewrite Z.compare_lt_iff in *. lia.
Qed.

(** -∞ is the least and +∞ the greatest non-NaN value *)
Theorem i64_cmp_inf a :
  a <> INaN ->
  (a <> IMinusInf -> i64_partial_cmp IMinusInf a = Some Lt) /\
  (a <> IPlusInf -> i64_partial_cmp a IPlusInf = Some Lt).
Proof. destruct a; simpl; intros; split; intros; congruence. Qed.

Theorem i64_eqb_spec a b : i64_eqb a b = true <-> a = b.
Proof.
  destruct a, b; simpl; split; intros H; try discriminate; trivial.
  - apply Z.eqb_eq in H. now subst.
  - injection H as ->. apply Z.eqb_refl.
Qed.

Theorem i64_is_zero_spec a : i64_is_zero a = true <-> a = i64_zero.
Proof. apply i64_eqb_spec. Qed.
Theorem i64_is_one_spec a : i64_is_one a = true <-> a = i64_one.
Proof. apply i64_eqb_spec. Qed.
Theorem i64_is_nan_spec a : i64_is_nan a = true <-> a = i64_nan.
Proof. apply i64_eqb_spec. Qed.

(** ** min / max (the terminal arm of [terminal_bin]) *)

Theorem i64_min_spec a b :
  i64_min a b =
  match ext_cmp a b with Some Gt => b | Some _ => a | None => INaN end.
Proof. unfold i64_min. rewrite i64_partial_cmp_spec. destruct (ext_cmp a b) as [[| |]|]; reflexivity. Qed.

Theorem i64_max_spec a b :
  i64_max a b =
  match ext_cmp a b with Some Lt => b | Some _ => a | None => INaN end.
Proof. unfold i64_max. rewrite i64_partial_cmp_spec. destruct (ext_cmp a b) as [[| |]|]; reflexivity. Qed.

(** on finite values min/max are [Z.min]/[Z.max] *)
Theorem i64_min_num x y : i64_min (INum x) (INum y) = INum (Z.min x y).
Proof. unfold i64_min, Z.min. simpl. destruct (x ?= y); reflexivity. Qed.
Theorem i64_max_num x y : i64_max (INum x) (INum y) = INum (Z.max x y).
Proof.
  unfold i64_max, Z.max. simpl. destruct (x ?= y); reflexivity.
Qed.

Theorem i64_min_wf a b : wf a -> wf b -> wf (i64_min a b).
Proof. unfold i64_min. destruct (i64_partial_cmp a b) as [[| |]|]; simpl; trivial. Qed.
Theorem i64_max_wf a b : wf a -> wf b -> wf (i64_max a b).
Proof. unfold i64_max. destruct (i64_partial_cmp a b) as [[| |]|]; simpl; trivial. Qed.

Lemma ext_le_num u v : ext_le (INum u) (INum v) <-> u <= v.
Proof.
  unfold ext_le, Z.le. simpl. destruct (u ?= v); split; intros H; try exact I;
    try discriminate; try contradiction; exfalso; now apply H.
Qed.

(** min is a lower bound / max an upper bound w.r.t. the order (non-NaN operands) *)
Theorem i64_min_le a b :
  a <> INaN -> b <> INaN -> ext_le (i64_min a b) a /\ ext_le (i64_min a b) b /\
  (i64_min a b = a \/ i64_min a b = b).
Proof.
  destruct a as [| |x|], b as [| |y|]; intros Ha Hb; try congruence;
    try (unfold i64_min, ext_le; simpl; rewrite ?Z.compare_refl; repeat split; auto; fail).
  rewrite i64_min_num, !ext_le_num. repeat split.
  - apply Z.le_min_l.
  - apply Z.le_min_r.
  - destruct (Z.min_spec x y) as [[_ ->]|[_ ->]]; auto.
Qed.
Theorem i64_max_ge a b :
  a <> INaN -> b <> INaN -> ext_le a (i64_max a b) /\ ext_le b (i64_max a b) /\
  (i64_max a b = a \/ i64_max a b = b).
Proof.
  destruct a as [| |x|], b as [| |y|]; intros Ha Hb; try congruence;
    try (unfold i64_max, ext_le; simpl; rewrite ?Z.compare_refl; repeat split; auto; fail).
  rewrite i64_max_num, !ext_le_num. repeat split.
  - apply Z.le_max_l.
  - apply Z.le_max_r.
  - destruct (Z.max_spec x y) as [[_ ->]|[_ ->]]; auto.
Qed.

(** ** short-cut laws of [terminal_bin] (oxidd-rules-mtbdd/src/lib.rs) *)

(** Add: [(Terminal(t), _) if t.is_zero() => g], [(_, Terminal(t)) if t.is_zero() => f] *)
Theorem i64_add_zero_l t x : i64_is_zero t = true -> wf x -> i64_add t x = x.
Proof.
  intros Ht Hx. apply i64_is_zero_spec in Ht. subst t.
  rewrite i64_add_spec by (simpl; trivial; apply in_i64b_true; reflexivity).
  destruct x; simpl in *; trivial. apply in_i64b_true in Hx.
  replace (0 + z) with z by lia. now rewrite Hx.
Qed.
Theorem i64_add_zero_r t x : i64_is_zero t = true -> wf x -> i64_add x t = x.
Proof.
  intros Ht Hx. apply i64_is_zero_spec in Ht. subst t.
  rewrite i64_add_spec by (simpl; trivial; apply in_i64b_true; reflexivity).
  destruct x; simpl in *; trivial. apply in_i64b_true in Hx.
  replace (z + 0) with z by lia. now rewrite Hx.
Qed.

(** Sub: [(_, Terminal(t)) if t.is_zero() => f] *)
Theorem i64_sub_zero_r t x : i64_is_zero t = true -> wf x -> i64_sub x t = x.
Proof.
  intros Ht Hx. apply i64_is_zero_spec in Ht. subst t.
  rewrite i64_sub_spec by (simpl; trivial; apply in_i64b_true; reflexivity).
  destruct x; simpl in *; trivial. apply in_i64b_true in Hx.
  rewrite ?Z.opp_0, ?Z.add_0_r. now rewrite Hx.
Qed.

(** Sub: [(Terminal(t), _) if t.is_zero() => g] claims 0 - g = g: NOT a law *)
Theorem i64_sub_zero_l_refuted :
  exists t x, i64_is_zero t = true /\ wf x /\ i64_sub t x <> x.
Proof.
  exists (INum 0), (INum 3). split; [reflexivity|]. split.
  - apply in_i64b_true. reflexivity.
  - vm_compute. discriminate.
Qed.
(** what the arm would have to return instead: 0 - x = -x (saturated) *)
Theorem i64_sub_zero_l t x :
  i64_is_zero t = true -> wf x -> i64_sub t x = clamp (ext_opp x).
Proof.
  intros Ht Hx. apply i64_is_zero_spec in Ht. subst t.
  rewrite i64_sub_spec by (simpl; trivial; apply in_i64b_true; reflexivity).
  destruct x; simpl; trivial.
Qed.
(** and it coincides with [g] only for x = 0, NaN *)
Theorem i64_sub_zero_l_fix x : wf x -> (i64_sub i64_zero x = x <-> x = INum 0 \/ x = INaN).
Proof.
  intros Hx. rewrite (i64_sub_zero_l i64_zero x eq_refl Hx).
  destruct x; simpl; split; intros H; try discriminate; auto;
    try (destruct H; discriminate).
  - destruct (in_i64b (- z)) eqn:E.
    + injection H as H. left. f_equal. lia.
    + destruct (Z.sgn (- z)); discriminate.
  - destruct H as [H|H]; [|discriminate]. injection H as ->. reflexivity.
Qed.

(** Mul: [(Terminal(t), _) if t.is_one() => g], [(_, Terminal(t)) if t.is_one() => f] *)
Theorem i64_mul_one_l t x : i64_is_one t = true -> wf x -> i64_mul t x = x.
Proof.
  intros Ht Hx. apply i64_is_one_spec in Ht. subst t.
  rewrite i64_mul_spec by (simpl; trivial; apply in_i64b_true; reflexivity).
  destruct x; simpl in *; trivial. apply in_i64b_true in Hx.
  replace (1 * z) with z by lia. now rewrite Hx.
Qed.
Theorem i64_mul_one_r t x : i64_is_one t = true -> wf x -> i64_mul x t = x.
Proof.
  intros Ht Hx. apply i64_is_one_spec in Ht. subst t.
  rewrite i64_mul_spec by (simpl; trivial; apply in_i64b_true; reflexivity).
  destruct x; simpl in *; trivial. apply in_i64b_true in Hx.
  replace (z * 1) with z by lia. now rewrite Hx.
Qed.

(** Div: [(_, Terminal(t)) if t.is_one() => f] *)
Theorem i64_div_one_r t x : i64_is_one t = true -> wf x -> i64_div x t = x.
Proof.
  intros Ht Hx. apply i64_is_one_spec in Ht. subst t.
  rewrite i64_div_spec by (simpl; trivial; apply in_i64b_true; reflexivity).
  destruct x; simpl in *; trivial. apply in_i64b_true in Hx.
  rewrite Z.quot_1_r. now rewrite Hx.
Qed.

(** NaN is absorbing for all six operators:
    [(Terminal(t), _) | (_, Terminal(t)) if t.is_nan() => nan] *)
Theorem i64_nan_absorbing t x :
  i64_is_nan t = true ->
  i64_add t x = i64_nan /\ i64_add x t = i64_nan /\
  i64_sub t x = i64_nan /\ i64_sub x t = i64_nan /\
  i64_mul t x = i64_nan /\ i64_mul x t = i64_nan /\
  i64_div t x = i64_nan /\ i64_div x t = i64_nan /\
  i64_min t x = i64_nan /\ i64_min x t = i64_nan /\
  i64_max t x = i64_nan /\ i64_max x t = i64_nan.
Proof.
  intros Ht. apply i64_is_nan_spec in Ht. subst t.
  destruct x; repeat split.
Qed.

(** operand swap ([_ if f > g => Binary(op, g, f)]): Add, Mul, Min, Max commute *)
Theorem i64_add_comm a b : i64_add a b = i64_add b a.
Proof.
  destruct a as [| |x|], b as [| |y|]; simpl; trivial.
  unfold checked_add. rewrite (Z.add_comm y x), (andb_comm (0 <? y)). reflexivity.
Qed.
Theorem i64_mul_comm a b : i64_mul a b = i64_mul b a.
Proof.
  destruct a as [| |x|], b as [| |y|]; simpl; trivial.
  - destruct (sgn_cases y) as [[_ ->]|[[_ ->]| [_ ->]]]; reflexivity.
  - destruct (sgn_cases x) as [[_ ->]|[[_ ->]| [_ ->]]]; reflexivity.
  - unfold checked_mul. rewrite (Z.mul_comm y x), (andb_comm (0 <? y)), (andb_comm (y <? 0)).
    reflexivity.
  - destruct (sgn_cases x) as [[_ ->]|[[_ ->]| [_ ->]]]; reflexivity.
  - destruct (sgn_cases y) as [[_ ->]|[[_ ->]| [_ ->]]]; reflexivity.
Qed.
Theorem i64_min_comm a b : i64_min a b = i64_min b a.
Proof.
  unfold i64_min. rewrite (i64_cmp_antisym a b).
  destruct (i64_partial_cmp a b) as [[| |]|] eqn:E; simpl; trivial.
  now apply i64_cmp_eq_iff in E.
Qed.
Theorem i64_max_comm a b : i64_max a b = i64_max b a.
Proof.
  unfold i64_max. rewrite (i64_cmp_antisym a b).
  destruct (i64_partial_cmp a b) as [[| |]|] eqn:E; simpl; trivial.
  now apply i64_cmp_eq_iff in E.
Qed.
(** Sub and Div are not swapped by the code, and indeed do not commute *)
Theorem i64_sub_div_not_comm :
  i64_sub (INum 1) (INum 2) <> i64_sub (INum 2) (INum 1) /\
  i64_div (INum 1) (INum 2) <> i64_div (INum 2) (INum 1).
Proof. split; vm_compute; discriminate. Qed.

(** Min/Max: [if f == g { return f }] *)
Theorem i64_min_idem a : i64_min a a = a.
Proof. unfold i64_min. now rewrite i64_cmp_refl. Qed.
Theorem i64_max_idem a : i64_max a a = a.
Proof. unfold i64_max. now rewrite i64_cmp_refl. Qed.

(** Max: the non-terminal arms return [Binary(MTBDDOp::Min, ..)], i.e. they
    treat max as min (same cache key, and [apply_bin] recurses with the
    operator it was called with, so the recursion is still max, but the
    cache entries are shared with min): max = min is NOT a law *)
Theorem i64_max_as_min_refuted :
  exists a b, wf a /\ wf b /\ i64_max a b <> i64_min a b.
Proof.
  exists (INum 1), (INum 2). repeat split; try (apply in_i64b_true; reflexivity).
  vm_compute. discriminate.
Qed.
(** max = min exactly on equal or NaN-involving operands *)
Theorem i64_max_eq_min_iff a b :
  i64_max a b = i64_min a b <-> (a = b \/ a = INaN \/ b = INaN).
Proof.
  unfold i64_max, i64_min.
  destruct (i64_partial_cmp a b) as [[| |]|] eqn:E.
  - apply i64_cmp_eq_iff in E. tauto.
  - split; intros H.
    + left. now symmetry.
    + destruct H as [H|[H|H]]; subst; trivial.
      * destruct b; discriminate.
      * destruct a; discriminate.
  - split; intros H.
    + now left.
    + destruct H as [H|[H|H]]; subst; trivial.
      * destruct b; discriminate.
      * destruct a; discriminate.
  - apply i64_cmp_none_iff in E. split; trivial. tauto.
Qed.

(** hypotheses are satisfiable / the interesting cases are reached *)
Example i64_add_spec_ex :
  wf (INum i64_MIN) /\ wf (INum (-1)) /\
  i64_add (INum i64_MIN) (INum (-1)) = IMinusInf /\
  i64_sub (INum 0) (INum i64_MIN) = IPlusInf /\
  i64_mul (INum 4294967296) (INum (-4294967296)) = IMinusInf /\
  i64_mul (INum 3037000499) (INum 3037000499) = INum 9223372030926249001 /\
  i64_div (INum (-7)) (INum 2) = INum (-3).
Proof. repeat split; try (apply in_i64b_true; reflexivity). Qed.

(** ** bundles (one statement per group; used by Props/C10.v and meant as the
    hypotheses of the diagram-level lifting) *)

Theorem i64_closed a b :
  wf a -> wf b ->
  wf (i64_add a b) /\ wf (i64_sub a b) /\ wf (i64_mul a b) /\ wf (i64_div a b) /\
  wf (i64_min a b) /\ wf (i64_max a b).
Proof.
  intros Ha Hb. repeat split.
  - now apply i64_add_wf. - now apply i64_sub_wf. - now apply i64_mul_wf.
  - now apply i64_div_wf. - now apply i64_min_wf. - now apply i64_max_wf.
Qed.

Theorem i64_cmp_partial_order :
  (forall a, i64_partial_cmp a a = Some Eq) /\
  (forall a b, i64_partial_cmp a b = Some Eq <-> a = b) /\
  (forall a b, i64_partial_cmp b a = option_map CompOpp (i64_partial_cmp a b)) /\
  (forall a b c, i64_partial_cmp a b = Some Lt -> i64_partial_cmp b c = Some Lt ->
                 i64_partial_cmp a c = Some Lt).
Proof.
  split; [exact i64_cmp_refl|]. split; [exact i64_cmp_eq_iff|].
  split; [exact i64_cmp_antisym|exact i64_cmp_lt_trans].
Qed.

Theorem i64_shortcut_laws t x :
  wf x ->
  (i64_is_zero t = true -> i64_add t x = x /\ i64_add x t = x /\ i64_sub x t = x) /\
  (i64_is_one t = true -> i64_mul t x = x /\ i64_mul x t = x /\ i64_div x t = x).
Proof.
  intros Hx. split; intros Ht; repeat split.
  - now apply i64_add_zero_l. - now apply i64_add_zero_r. - now apply i64_sub_zero_r.
  - now apply i64_mul_one_l. - now apply i64_mul_one_r. - now apply i64_div_one_r.
Qed.

Theorem i64_swap_laws a b :
  i64_add a b = i64_add b a /\ i64_mul a b = i64_mul b a /\
  i64_min a b = i64_min b a /\ i64_max a b = i64_max b a.
Proof.
  repeat split.
  - apply i64_add_comm. - apply i64_mul_comm. - apply i64_min_comm. - apply i64_max_comm.
Qed.

Theorem i64_minmax_idem a : i64_min a a = a /\ i64_max a a = a.
Proof. split. apply i64_min_idem. apply i64_max_idem. Qed.

Theorem i64_minmax_bounds a b :
  a <> INaN -> b <> INaN ->
  (ext_le (i64_min a b) a /\ ext_le (i64_min a b) b /\ (i64_min a b = a \/ i64_min a b = b)) /\
  (ext_le a (i64_max a b) /\ ext_le b (i64_max a b) /\ (i64_max a b = a \/ i64_max a b = b)).
Proof. intros Ha Hb. split. now apply i64_min_le. now apply i64_max_ge. Qed.

Theorem i64_div_clauses :
  (forall x, i64_div (INum x) (INum 0) =
             if x <? 0 then IMinusInf else if x =? 0 then INaN else IPlusInf) /\
  i64_div (INum i64_MIN) (INum (-1)) = IPlusInf /\
  (forall x, i64_div (INum x) IPlusInf = INum 0 /\ i64_div (INum x) IMinusInf = INum 0) /\
  (forall y, i64_div IPlusInf (INum y) = (if y <? 0 then IMinusInf else IPlusInf) /\
             i64_div IMinusInf (INum y) = (if y <? 0 then IPlusInf else IMinusInf)).
Proof.
  split; [exact i64_div_zero|]. split; [exact i64_div_min_m1|].
  split; [exact i64_div_fin_inf|exact i64_div_inf_fin].
Qed.
