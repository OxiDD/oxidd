(** * Arithmetic facts used by the proofs about [Num/Natural.v]

    Powers of two, [N.size] (bit width), [ctz] (trailing zeros), the u64
    primitives ([shl64], [shr64], [N.lor] of disjoint values) and the value
    [digits_val] of the digit-list algorithms ([add_digits], [shl_digits],
    [shr_digits], [fit], [strip_lsd_zeros], [strip_msd_zeros]). *)

From Coq Require Import List NArith Bool Lia.
From OxiVerif Require Import Num.Natural.
Import ListNotations.
Local Open Scope N_scope.

#[local] Arguments N.add : simpl never.
#[local] Arguments N.sub : simpl never.
#[local] Arguments N.mul : simpl never.
#[local] Arguments N.div : simpl never.
#[local] Arguments N.modulo : simpl never.
#[local] Arguments N.pow : simpl never.
#[local] Arguments N.min : simpl never.
#[local] Arguments N.max : simpl never.
#[local] Arguments N.shiftl : simpl never.
#[local] Arguments N.shiftr : simpl never.
#[local] Arguments N.lor : simpl never.
#[local] Arguments N.size : simpl never.

(** ** Powers of two *)

Lemma p2_pos : forall k, 0 < 2 ^ k.
Proof. intros k. apply N.neq_0_lt_0. apply N.pow_nonzero. discriminate. Qed.

Lemma p2_nz : forall k, 2 ^ k <> 0.
Proof. intros k. apply N.pow_nonzero. discriminate. Qed.

Lemma p2_le : forall a b, a <= b -> 2 ^ a <= 2 ^ b.
Proof. intros a b Hab. apply N.pow_le_mono_r; [discriminate | exact Hab]. Qed.

Lemma p2_lt : forall a b, a < b -> 2 ^ a < 2 ^ b.
Proof. intros a b Hab. apply N.pow_lt_mono_r; [reflexivity | exact Hab]. Qed.

Lemma p2_le_inv : forall a b, 2 ^ a <= 2 ^ b -> a <= b.
Proof. intros a b Hab. apply (N.pow_le_mono_r_iff 2); [reflexivity | exact Hab]. Qed.

Lemma p2_lt_inv : forall a b, 2 ^ a < 2 ^ b -> a < b.
Proof. intros a b Hab. apply (N.pow_lt_mono_r_iff 2); [reflexivity | exact Hab]. Qed.

Lemma p2_add : forall a b, 2 ^ (a + b) = 2 ^ a * 2 ^ b.
Proof. intros. apply N.pow_add_r. Qed.

Lemma p2_split : forall a b, b <= a -> 2 ^ a = 2 ^ b * 2 ^ (a - b).
Proof. intros a b Hab. rewrite <- p2_add. f_equal. lia. Qed.

Lemma p2_succ : forall a, 2 ^ (a + 1) = 2 * 2 ^ a.
Proof. intros a. rewrite p2_add. change (2 ^ 1) with 2. lia. Qed.

Lemma B64_eq : B64 = 2 ^ 64.
Proof. reflexivity. Qed.

Lemma B128_eq : B128 = 2 ^ 128.
Proof. reflexivity. Qed.

Lemma U64MAX_eq : U64MAX = B64 - 1.
Proof. reflexivity. Qed.

Lemma B64_pos : 0 < B64.
Proof. reflexivity. Qed.

Lemma B64_pow : forall k, B64 ^ k = 2 ^ (64 * k).
Proof. intros k. rewrite B64_eq, <- N.pow_mul_r. reflexivity. Qed.

Lemma B64p_pos : forall k, 0 < B64 ^ k.
Proof. intros k. rewrite B64_pow. apply p2_pos. Qed.

Lemma mul_lt_p2 : forall a b j k, a < 2 ^ j -> b < 2 ^ k -> a * b < 2 ^ (j + k).
Proof.
  intros a b j k Ha Hb. rewrite p2_add.
  pose proof (p2_pos j). pose proof (p2_pos k). nia.
Qed.

(** division of a power of two by a smaller one *)
Lemma p2_div : forall a b, b <= a -> 2 ^ a / 2 ^ b = 2 ^ (a - b).
Proof.
  intros a b Hab. rewrite (p2_split a b Hab), N.mul_comm. apply N.div_mul. apply p2_nz.
Qed.

Lemma div_p2_lt : forall x a b, x < 2 ^ (a + b) -> x / 2 ^ a < 2 ^ b.
Proof.
  intros x a b Hx. apply N.div_lt_upper_bound; [apply p2_nz|]. rewrite <- p2_add. exact Hx.
Qed.

Lemma div_p2_le : forall x k, x / 2 ^ k <= x.
Proof. intros x k. apply N.div_le_upper_bound; [apply p2_nz|]. pose proof (p2_pos k). nia. Qed.

Lemma mul_p2_ge : forall x k, x <= x * 2 ^ k.
Proof. intros x k. pose proof (p2_pos k). nia. Qed.

Lemma div_small_iff : forall x k, x / 2 ^ k = 0 <-> x < 2 ^ k.
Proof.
  intros x k. split.
  - intros Hd. pose proof (N.div_mod x (2 ^ k) (p2_nz k)) as E.
    pose proof (N.mod_lt x (2 ^ k) (p2_nz k)). rewrite Hd in E. lia.
  - apply N.div_small.
Qed.

Lemma mod_p2_split : forall x a b,
  x mod 2 ^ (a + b) = (x / 2 ^ a) mod 2 ^ b * 2 ^ a + x mod 2 ^ a.
Proof. intros x a b. rewrite p2_add, N.mod_mul_r by apply p2_nz. lia. Qed.

Lemma mod_p2_mod : forall x a b, a <= b -> (x mod 2 ^ b) mod 2 ^ a = x mod 2 ^ a.
Proof.
  intros x a b H. assert (E : b = a + (b - a)) by lia. rewrite E, mod_p2_split.
  rewrite N.add_comm, N.mod_add by apply p2_nz. apply N.mod_mod. apply p2_nz.
Qed.

(** ** [N.size]: the bit width *)

Lemma size_le_iff : forall m k, N.size m <= k <-> m < 2 ^ k.
Proof.
  intros m k. destruct (N.eq_dec m 0) as [->|Hm].
  - change (N.size 0) with 0. pose proof (p2_pos k). lia.
  - rewrite (N.size_log2 m Hm). rewrite (N.log2_lt_pow2 m k) by lia. lia.
Qed.

Lemma size_gt_iff : forall m k, k < N.size m <-> 2 ^ k <= m.
Proof. intros m k. pose proof (size_le_iff m k). lia. Qed.

Lemma size_0_iff : forall m, N.size m = 0 <-> m = 0.
Proof.
  intros m. split; [|intros ->; reflexivity]. intros Hs.
  assert (H : N.size m <= 0) by lia. apply size_le_iff in H. change (2 ^ 0) with 1 in H. lia.
Qed.

Lemma size_pos : forall m, m <> 0 -> 1 <= N.size m.
Proof. intros m Hm. assert (N.size m <> 0) by (rewrite size_0_iff; exact Hm). lia. Qed.

Lemma size_unique : forall m k, 2 ^ k <= m -> m < 2 ^ (k + 1) -> N.size m = k + 1.
Proof.
  intros m k H1 H2. apply size_gt_iff in H1. apply size_le_iff in H2. lia.
Qed.

Lemma size_lo : forall m, m <> 0 -> 2 ^ (N.size m - 1) <= m.
Proof.
  intros m Hm. apply size_gt_iff. pose proof (size_pos m Hm). lia.
Qed.

Lemma size_mono : forall a b, a <= b -> N.size a <= N.size b.
Proof.
  intros a b Hab. apply size_le_iff. pose proof (N.size_gt b). lia.
Qed.

Lemma size_mul_p2 : forall m e, m <> 0 -> N.size (m * 2 ^ e) = N.size m + e.
Proof.
  intros m e Hm. pose proof (size_lo m Hm) as Hlo. pose proof (N.size_gt m) as Hhi.
  pose proof (size_pos m Hm) as Hs.
  replace (N.size m + e) with ((N.size m - 1 + e) + 1) by lia.
  apply size_unique.
  - rewrite p2_add. apply N.mul_le_mono_r. exact Hlo.
  - replace (N.size m - 1 + e + 1) with (N.size m + e) by lia. rewrite p2_add.
    apply N.mul_lt_mono_pos_r; [apply p2_pos | exact Hhi].
Qed.

Lemma size_div_p2 : forall m t, N.size (m / 2 ^ t) = N.size m - t.
Proof.
  intros m t. destruct (N.le_gt_cases (N.size m) t) as [Hle|Hgt].
  - assert (Hm : m < 2 ^ t) by (apply size_le_iff; exact Hle).
    rewrite N.div_small by exact Hm. change (N.size 0) with 0. lia.
  - assert (Hlo : 2 ^ (N.size m - 1) <= m).
    { apply size_lo. intros ->. change (N.size 0) with 0 in Hgt. lia. }
    replace (N.size m - t) with ((N.size m - t - 1) + 1) by lia.
    apply size_unique.
    + apply N.div_le_lower_bound; [apply p2_nz|]. rewrite <- p2_add.
      replace (t + (N.size m - t - 1)) with (N.size m - 1) by lia. exact Hlo.
    + apply div_p2_lt. replace (t + (N.size m - t - 1 + 1)) with (N.size m) by lia. apply N.size_gt.
Qed.

Lemma size_add_lo : forall x y, N.max (N.size x) (N.size y) <= N.size (x + y).
Proof.
  intros x y. pose proof (size_mono x (x + y) ltac:(lia)). pose proof (size_mono y (x + y) ltac:(lia)). lia.
Qed.

Lemma size_add_hi : forall x y, N.size (x + y) <= N.max (N.size x) (N.size y) + 1.
Proof.
  intros x y. apply size_le_iff. rewrite p2_succ.
  pose proof (N.size_gt x) as Hx. pose proof (N.size_gt y) as Hy.
  pose proof (p2_le (N.size x) (N.max (N.size x) (N.size y)) ltac:(lia)).
  pose proof (p2_le (N.size y) (N.max (N.size x) (N.size y)) ltac:(lia)). lia.
Qed.

Lemma size_lt_B64 : forall d, d < B64 -> N.size d <= 64.
Proof. intros d Hd. apply size_le_iff. exact Hd. Qed.

(** ** Odd numbers and [ctz] *)

Lemma odd_iff : forall m, N.odd m = true <-> exists q, m = 2 * q + 1.
Proof. intros m. rewrite N.odd_spec. reflexivity. Qed.

Lemma odd_nz : forall m, N.odd m = true -> m <> 0.
Proof. intros m H ->. discriminate. Qed.

Lemma odd_mod2 : forall m, N.odd m = true <-> m mod 2 = 1.
Proof.
  intros m. rewrite odd_iff. split.
  - intros [q ->]. rewrite N.add_comm, N.mul_comm, N.mod_add by discriminate. reflexivity.
  - intros Hm. exists (m / 2). pose proof (N.div_mod m 2 ltac:(discriminate)). lia.
Qed.

Lemma odd_b2n : forall q, (if N.odd q then 1 else 0) = q mod 2.
Proof. intros q. rewrite <- N.bit0_mod, N.bit0_odd. destruct (N.odd q); reflexivity. Qed.

Lemma ctz_pos_spec : forall p, exists q, Npos p = (2 * q + 1) * 2 ^ ctz_pos p.
Proof.
  induction p as [p IH|p IH|].
  - exists (Npos p). simpl ctz_pos. change (2 ^ 0) with 1. lia.
  - destruct IH as [q Hq]. exists q. simpl ctz_pos.
    rewrite <- N.add_1_r, p2_succ. change (N.pos p~0) with (2 * N.pos p). rewrite Hq. lia.
  - exists 0. reflexivity.
Qed.

Lemma ctz_spec : forall x, x <> 0 -> exists q, x = (2 * q + 1) * 2 ^ ctz x.
Proof. intros [|p] Hx; [contradiction|]. apply ctz_pos_spec. Qed.

(** a power of two times an odd number determines both *)
Lemma odd_p2_unique : forall m1 e1 m2 e2, N.odd m1 = true -> N.odd m2 = true ->
  m1 * 2 ^ e1 = m2 * 2 ^ e2 -> m1 = m2 /\ e1 = e2.
Proof.
  assert (X : forall m1 e1 m2 e2, N.odd m1 = true -> N.odd m2 = true ->
    e1 <= e2 -> m1 * 2 ^ e1 = m2 * 2 ^ e2 -> m1 = m2 /\ e1 = e2).
  { intros m1 e1 m2 e2 H1 H2 Hle E.
    rewrite (p2_split e2 e1 Hle) in E.
    assert (E' : m1 = m2 * 2 ^ (e2 - e1)).
    { apply (N.mul_cancel_r _ _ (2 ^ e1)); [apply p2_nz|]. lia. }
    destruct (N.eq_dec (e2 - e1) 0) as [Hz|Hnz].
    - rewrite Hz in E'. change (2 ^ 0) with 1 in E'. split; lia.
    - exfalso. rewrite E' in H1. rewrite N.odd_mul, N.odd_pow in H1 by exact Hnz.
      rewrite andb_comm in H1. discriminate. }
  intros m1 e1 m2 e2 H1 H2 E. destruct (N.le_ge_cases e1 e2) as [Hle|Hge].
  - apply X; assumption.
  - destruct (X m2 e2 m1 e1 H2 H1 Hge (eq_sym E)). split; congruence.
Qed.

Lemma ctz_unique : forall m e, N.odd m = true -> ctz (m * 2 ^ e) = e.
Proof.
  intros m e Hm.
  assert (Hnz : m * 2 ^ e <> 0) by (pose proof (odd_nz m Hm); pose proof (p2_pos e); nia).
  destruct (ctz_spec _ Hnz) as [q Hq].
  assert (Ho : N.odd (2 * q + 1) = true) by (apply odd_iff; eauto).
  destruct (odd_p2_unique _ _ _ _ Hm Ho Hq). congruence.
Qed.

Lemma ctz_odd : forall m, N.odd m = true -> ctz m = 0.
Proof.
  intros m Hm. pose proof (ctz_unique m 0 Hm) as H. change (2 ^ 0) with 1 in H.
  rewrite N.mul_1_r in H. exact H.
Qed.

(** the odd part *)
Lemma ctz_div_odd : forall x, x <> 0 -> N.odd (x / 2 ^ ctz x) = true /\ x = (x / 2 ^ ctz x) * 2 ^ ctz x.
Proof.
  intros x Hx. destruct (ctz_spec x Hx) as [q Hq].
  assert (E : x / 2 ^ ctz x = 2 * q + 1).
  { rewrite Hq at 1. apply N.div_mul. apply p2_nz. }
  rewrite E. split; [apply odd_iff; eauto | exact Hq].
Qed.

Lemma ctz_lt_size : forall x, x <> 0 -> ctz x < N.size x.
Proof.
  intros x Hx. destruct (ctz_spec x Hx) as [q Hq]. apply size_gt_iff.
  rewrite Hq at 2. pose proof (p2_pos (ctz x)). nia.
Qed.

Lemma ctz_mul_p2 : forall x k, x <> 0 -> ctz (x * 2 ^ k) = ctz x + k.
Proof.
  intros x k Hx. destruct (ctz_div_odd x Hx) as [Ho E].
  rewrite E at 1. rewrite <- N.mul_assoc, <- p2_add. apply ctz_unique. exact Ho.
Qed.

(** [2^k] divides [x] iff [k <= ctz x] *)
Lemma mod_p2_ctz : forall x k, x <> 0 -> (x mod 2 ^ k = 0 <-> k <= ctz x).
Proof.
  intros x k Hx. destruct (ctz_div_odd x Hx) as [Ho E]. set (m := x / 2 ^ ctz x) in *.
  split.
  - intros Hm. destruct (N.le_gt_cases k (ctz x)) as [|Hgt]; [assumption|exfalso].
    apply N.mod_divide in Hm; [|apply p2_nz]. destruct Hm as [c Hc].
    rewrite (p2_split k (ctz x)) in Hc by lia.
    assert (Em : m = c * 2 ^ (k - ctz x)).
    { apply (N.mul_cancel_r _ _ (2 ^ ctz x)); [apply p2_nz|]. lia. }
    rewrite Em, N.odd_mul, N.odd_pow in Ho by lia. rewrite andb_comm in Ho. discriminate.
  - intros Hle. rewrite E, (p2_split (ctz x) k Hle).
    replace (m * (2 ^ k * 2 ^ (ctz x - k))) with (m * 2 ^ (ctz x - k) * 2 ^ k) by lia.
    apply N.mod_mul. apply p2_nz.
Qed.

(** ** u64 primitives *)

Lemma lor_disjoint : forall a b k, a < 2 ^ k -> N.lor (b * 2 ^ k) a = b * 2 ^ k + a.
Proof.
  intros a b k Ha.
  assert (Hl : N.land (b * 2 ^ k) a = 0).
  { apply N.bits_inj. intros i. rewrite N.land_spec, N.bits_0.
    destruct (N.lt_ge_cases i k) as [Hi|Hi].
    - rewrite N.mul_pow2_bits_low by exact Hi. reflexivity.
    - destruct (N.eq_dec a 0) as [->|Hnz]; [rewrite N.bits_0; apply andb_false_r|].
      rewrite (N.bits_above_log2 a i); [apply andb_false_r|].
      apply N.log2_lt_pow2; [lia|]. pose proof (p2_le k i Hi). lia. }
  rewrite (N.add_nocarry_lxor _ _ Hl). symmetry. apply N.lxor_lor. exact Hl.
Qed.

Lemma lor_disjoint' : forall a b k, a < 2 ^ k -> N.lor a (b * 2 ^ k) = b * 2 ^ k + a.
Proof. intros. rewrite N.lor_comm. apply lor_disjoint. assumption. Qed.

Lemma shr64_eq : forall x k, shr64 x k = x / 2 ^ k.
Proof. intros. unfold shr64. apply N.shiftr_div_pow2. Qed.

(** [x << k] keeps the low [64 - k] bits *)
Lemma shl64_eq : forall x k, k <= 64 -> shl64 x k = (x mod 2 ^ (64 - k)) * 2 ^ k.
Proof.
  intros x k Hk. unfold shl64. rewrite N.shiftl_mul_pow2, B64_eq, (p2_split 64 k Hk).
  rewrite (N.mul_comm (2 ^ k)). apply N.mul_mod_distr_r; apply p2_nz.
Qed.

Lemma shl64_small : forall x k, x * 2 ^ k < B64 -> shl64 x k = x * 2 ^ k.
Proof. intros x k Hx. unfold shl64. rewrite N.shiftl_mul_pow2. apply N.mod_small. exact Hx. Qed.

Lemma shl64_lt : forall x k, shl64 x k < B64.
Proof. intros. unfold shl64. apply N.mod_lt. discriminate. Qed.

Lemma lz64_eq : forall d, lz64 d = 64 - N.size d.
Proof. reflexivity. Qed.

(** ** Digit lists *)

Definition inr (l : list N) : Prop := Forall (fun d => d < B64) l.

Lemma inr_nil : inr [].
Proof. constructor. Qed.

Lemma inr_cons : forall d l, d < B64 -> inr l -> inr (d :: l).
Proof. intros. constructor; assumption. Qed.

Lemma inr_inv : forall d l, inr (d :: l) -> d < B64 /\ inr l.
Proof. intros d l H. inversion H; subst. split; assumption. Qed.

Lemma inr_app : forall l r, inr (l ++ r) <-> inr l /\ inr r.
Proof. intros. apply Forall_app. Qed.

Lemma inr_repeat0 : forall k, inr (repeat 0 k).
Proof. intros k. apply Forall_forall. intros x Hx. apply repeat_spec in Hx. subst x. reflexivity. Qed.

Lemma lenN_cons : forall (d : N) l, lenN (d :: l) = lenN l + 1.
Proof. intros. unfold lenN. simpl length. lia. Qed.

Lemma lenN_nil : lenN (@nil N) = 0.
Proof. reflexivity. Qed.

Lemma lenN_app : forall (l r : list N), lenN (l ++ r) = lenN l + lenN r.
Proof. intros. unfold lenN. rewrite app_length. lia. Qed.

Lemma lenN_repeat : forall (x : N) k, lenN (repeat x k) = N.of_nat k.
Proof. intros. unfold lenN. rewrite repeat_length. reflexivity. Qed.

Lemma lenN_pos : forall (l : list N), l <> [] -> 1 <= lenN l.
Proof. intros [|d l] H; [contradiction | rewrite lenN_cons; lia]. Qed.

Lemma digits_val_cons : forall d l, digits_val (d :: l) = d + B64 * digits_val l.
Proof. reflexivity. Qed.

Lemma digits_val_app : forall l r, digits_val (l ++ r) = digits_val l + B64 ^ lenN l * digits_val r.
Proof.
  induction l as [|d l IH]; intros r.
  - simpl app. rewrite lenN_nil. change (digits_val []) with 0. rewrite N.pow_0_r. lia.
  - simpl app. rewrite !digits_val_cons, IH, lenN_cons, N.pow_add_r, N.pow_1_r. lia.
Qed.

Lemma digits_val_lt : forall l, inr l -> digits_val l < B64 ^ lenN l.
Proof.
  induction l as [|d l IH]; intros H.
  - reflexivity.
  - apply inr_inv in H. destruct H as [Hd Hl]. specialize (IH Hl).
    rewrite digits_val_cons, lenN_cons, N.pow_add_r, N.pow_1_r. nia.
Qed.

Lemma digits_val_repeat0 : forall k, digits_val (repeat 0 k) = 0.
Proof. induction k as [|k IH]; [reflexivity|]. simpl repeat. rewrite digits_val_cons, IH. reflexivity. Qed.

Lemma digits_val_single : forall d, digits_val [d] = d.
Proof. intros. unfold digits_val. lia. Qed.

(** last digit decomposition *)
Lemma digits_val_last : forall l, l <> [] ->
  digits_val l = digits_val (removelast l) + B64 ^ (lenN l - 1) * last l 0.
Proof.
  intros l Hl. rewrite (app_removelast_last 0 Hl) at 1. rewrite digits_val_app, digits_val_single.
  f_equal. f_equal. f_equal. rewrite (app_removelast_last 0 Hl) at 2. rewrite lenN_app.
  change (lenN [last l 0]) with 1. lia.
Qed.

Lemma lenN_removelast : forall (l : list N), l <> [] -> lenN (removelast l) = lenN l - 1.
Proof.
  intros l Hl. rewrite (app_removelast_last 0 Hl) at 2. rewrite lenN_app.
  change (lenN [last l 0]) with 1. lia.
Qed.

Lemma inr_removelast : forall l, inr l -> inr (removelast l).
Proof.
  intros l H. destruct l as [|d l]; [exact H|].
  rewrite (app_removelast_last 0 (l := d :: l)) in H by discriminate. apply inr_app in H. apply H.
Qed.

Lemma inr_last : forall l, inr l -> last l 0 < B64.
Proof.
  intros l H. destruct l as [|d l]; [reflexivity|].
  rewrite (app_removelast_last 0 (l := d :: l)) in H by discriminate. apply inr_app in H.
  destruct H as [_ H]. apply inr_inv in H. apply H.
Qed.

Lemma msd_size : forall l, inr l -> N.size (last l 0) <= 64.
Proof. intros l H. apply size_lt_B64, inr_last, H. Qed.

Lemma inr_hd : forall l, inr l -> hd 0 l < B64.
Proof. intros [|d l] H; [reflexivity|]. apply inr_inv in H. apply H. Qed.

Lemma inr_tl : forall l, inr l -> inr (tl l).
Proof. intros [|d l] H; [exact H|]. apply inr_inv in H. apply H. Qed.

(** ** [carry_digits], [add_digits] *)

Lemma carry_digits_val : forall l c, digits_val (carry_digits c l) = c + digits_val l.
Proof.
  induction l as [|a l IH]; intros c.
  - simpl carry_digits. rewrite digits_val_single. change (digits_val []) with 0. lia.
  - simpl carry_digits. rewrite !digits_val_cons, IH.
    pose proof (N.div_mod (a + c) B64 ltac:(discriminate)). lia.
Qed.

Lemma add_digits_val : forall l r c, digits_val (add_digits c l r) = c + digits_val l + digits_val r.
Proof.
  induction l as [|a l IH]; intros r c.
  - simpl add_digits. rewrite carry_digits_val. change (digits_val []) with 0. lia.
  - destruct r as [|b r].
    + unfold add_digits. rewrite carry_digits_val. change (digits_val []) with 0. lia.
    + simpl add_digits. rewrite !digits_val_cons, IH.
      pose proof (N.div_mod (a + b + c) B64 ltac:(discriminate)). lia.
Qed.

Lemma carry_digits_inr : forall l c, c <= 1 -> inr l -> inr (carry_digits c l).
Proof.
  induction l as [|a l IH]; intros c Hc H.
  - simpl. apply inr_cons; [unfold B64; lia | apply inr_nil].
  - apply inr_inv in H. destruct H as [Ha Hl]. simpl carry_digits. apply inr_cons.
    + apply N.mod_lt. discriminate.
    + apply IH; [|exact Hl]. assert ((a + c) / B64 < 2); [|lia].
      apply N.div_lt_upper_bound; [discriminate|]. unfold B64 in *. lia.
Qed.

Lemma add_digits_inr : forall l r c, c <= 1 -> inr l -> inr r -> inr (add_digits c l r).
Proof.
  induction l as [|a l IH]; intros r c Hc Hl Hr.
  - simpl. apply carry_digits_inr; assumption.
  - destruct r as [|b r].
    + unfold add_digits. apply carry_digits_inr; assumption.
    + apply inr_inv in Hl. destruct Hl as [Ha Hl]. apply inr_inv in Hr. destruct Hr as [Hb Hr].
      simpl add_digits. apply inr_cons.
      * apply N.mod_lt. discriminate.
      * apply IH; [|exact Hl|exact Hr]. assert ((a + b + c) / B64 < 2); [|lia].
        apply N.div_lt_upper_bound; [discriminate|]. unfold B64 in *. lia.
Qed.

(** ** [shl_digits] *)

Lemma shl_digits_spec : forall sb ds lower, sb < 64 -> lower < 2 ^ sb -> inr ds ->
  digits_val (shl_digits sb lower ds) = lower + 2 ^ sb * digits_val ds /\
  inr (shl_digits sb lower ds).
Proof.
  intros sb ds lower Hsb. revert lower.
  assert (HB : B64 = 2 ^ (64 - sb) * 2 ^ sb) by (rewrite <- p2_add; replace (64 - sb + sb) with 64 by lia; reflexivity).
  induction ds as [|d r IH]; intros lower Hlo H.
  - simpl shl_digits. rewrite digits_val_single. change (digits_val []) with 0. split; [lia|].
    apply inr_cons; [|apply inr_nil]. pose proof (p2_lt sb 64 Hsb). rewrite B64_eq. lia.
  - apply inr_inv in H. destruct H as [Hd Hr]. simpl shl_digits.
    rewrite shl64_eq by lia. rewrite lor_disjoint by exact Hlo. rewrite shr64_eq.
    assert (Hq : d / 2 ^ (64 - sb) < 2 ^ sb).
    { apply div_p2_lt. replace (64 - sb + sb) with 64 by lia. exact Hd. }
    destruct (IH (d / 2 ^ (64 - sb)) Hq Hr) as [IHv IHr].
    pose proof (N.div_mod d (2 ^ (64 - sb)) (p2_nz _)) as Ed.
    pose proof (N.mod_lt d (2 ^ (64 - sb)) (p2_nz _)) as Hm.
    split.
    + rewrite !digits_val_cons, IHv. rewrite HB. nia.
    + apply inr_cons; [|exact IHr]. rewrite HB. nia.
Qed.

Lemma shl_digits_length : forall sb ds lower, length (shl_digits sb lower ds) = S (length ds).
Proof. intros sb. induction ds as [|d r IH]; intros lower; simpl; [reflexivity | rewrite IH; reflexivity]. Qed.

(** ** [shr_digits] *)

Lemma shr_digits_length : forall s ds, length (shr_digits s ds) = length ds.
Proof. intros s. induction ds as [|d r IH]; simpl; [reflexivity | rewrite IH; reflexivity]. Qed.

Lemma hd_mod : forall r k, k <= 64 -> hd 0 r mod 2 ^ k = digits_val r mod 2 ^ k.
Proof.
  intros [|h r] k Hk; [reflexivity|]. simpl hd. rewrite digits_val_cons, B64_eq, (p2_split 64 k Hk).
  replace (h + 2 ^ k * 2 ^ (64 - k) * digits_val r) with (h + (2 ^ (64 - k) * digits_val r) * 2 ^ k) by lia.
  rewrite N.mod_add by apply p2_nz. reflexivity.
Qed.

Lemma shr_digits_spec : forall s ds, s < 64 -> inr ds ->
  digits_val (shr_digits s ds) = digits_val ds / 2 ^ s /\ inr (shr_digits s ds).
Proof.
  intros s ds Hs.
  assert (HB : B64 = 2 ^ (64 - s) * 2 ^ s) by (rewrite <- p2_add; replace (64 - s + s) with 64 by lia; reflexivity).
  induction ds as [|d r IH]; intros H.
  - simpl. split; [symmetry; apply N.div_0_l; apply p2_nz | apply inr_nil].
  - apply inr_inv in H. destruct H as [Hd Hr]. destruct (IH Hr) as [IHv IHr]. simpl shr_digits.
    rewrite shl64_eq by lia. replace (64 - (64 - s)) with s by lia.
    rewrite shr64_eq.
    assert (Hq : d / 2 ^ s < 2 ^ (64 - s)).
    { apply div_p2_lt. replace (s + (64 - s)) with 64 by lia. exact Hd. }
    rewrite lor_disjoint' by exact Hq. rewrite (hd_mod r s) by lia.
    set (V := digits_val r) in *.
    pose proof (N.div_mod V (2 ^ s) (p2_nz _)) as EV.
    pose proof (N.mod_lt V (2 ^ s) (p2_nz _)) as HVm.
    split.
    + rewrite !digits_val_cons, IHv. fold V.
      replace (d + B64 * V) with (d + (2 ^ (64 - s) * V) * 2 ^ s) by (rewrite HB; lia).
      rewrite N.div_add by apply p2_nz. rewrite HB. nia.
    + apply inr_cons; [|exact IHr]. rewrite HB. nia.
Qed.

(** ** [firstn] / [fit] *)

Lemma firstn_val : forall k l, inr l -> digits_val (firstn k l) = digits_val l mod B64 ^ N.of_nat k.
Proof.
  induction k as [|k IH]; intros l H.
  - simpl firstn. change (N.of_nat 0) with 0. rewrite N.pow_0_r, N.mod_1_r. reflexivity.
  - destruct l as [|d l].
    + simpl firstn. change (digits_val []) with 0. symmetry. apply N.mod_0_l. pose proof (B64p_pos (N.of_nat (S k))). lia.
    + apply inr_inv in H. destruct H as [Hd Hl]. simpl firstn. rewrite !digits_val_cons, (IH l Hl).
      rewrite Nat2N.inj_succ, N.pow_succ_r'.
      pose proof (B64p_pos (N.of_nat k)) as Hp.
      pose proof (N.div_mod (digits_val l) (B64 ^ N.of_nat k) ltac:(lia)) as E.
      pose proof (N.mod_lt (digits_val l) (B64 ^ N.of_nat k) ltac:(lia)) as Hm.
      set (q := digits_val l / B64 ^ N.of_nat k) in *. set (m := digits_val l mod B64 ^ N.of_nat k) in *.
      apply N.mod_unique with (q := q); [unfold B64 in *; nia | rewrite E; lia].
Qed.

Lemma inr_firstn : forall k l, inr l -> inr (firstn k l).
Proof.
  intros k l H. rewrite <- (firstn_skipn k l) in H. apply inr_app in H. apply H.
Qed.

Lemma fit_length : forall len ds, length (fit len ds) = len.
Proof.
  intros len ds. unfold fit. rewrite firstn_length, app_length, repeat_length. lia.
Qed.

Lemma fit_inr : forall len ds, inr ds -> inr (fit len ds).
Proof.
  intros len ds H. unfold fit. apply inr_firstn. apply inr_app. split; [exact H | apply inr_repeat0].
Qed.

Lemma fit_val : forall len ds, inr ds -> digits_val ds < B64 ^ N.of_nat len ->
  digits_val (fit len ds) = digits_val ds.
Proof.
  intros len ds H Hlt. unfold fit. rewrite firstn_val.
  - rewrite digits_val_app, digits_val_repeat0, N.mul_0_r, N.add_0_r. apply N.mod_small. exact Hlt.
  - apply inr_app. split; [exact H | apply inr_repeat0].
Qed.

(** ** stripping zero digits *)

Lemma strip_lsd_spec : forall ds z t, strip_lsd_zeros ds = (z, t) ->
  ds = repeat 0 (N.to_nat z) ++ t /\ (t = [] \/ hd 0 t <> 0).
Proof.
  induction ds as [|d r IH]; intros z t E.
  - simpl in E. inversion E; subst. split; [reflexivity | left; reflexivity].
  - simpl in E. destruct (N.eqb_spec d 0) as [->|Hd].
    + destruct (strip_lsd_zeros r) as [z' t'] eqn:E'. inversion E; subst.
      destruct (IH z' t eq_refl) as [-> Ht]. split; [|exact Ht].
      rewrite N2Nat.inj_succ. reflexivity.
    + inversion E; subst. split; [reflexivity | right; exact Hd].
Qed.

Lemma strip_lsd_val : forall ds z t, strip_lsd_zeros ds = (z, t) ->
  digits_val ds = B64 ^ z * digits_val t.
Proof.
  intros ds z t E. destruct (strip_lsd_spec ds z t E) as [-> _].
  rewrite digits_val_app, digits_val_repeat0. unfold lenN. rewrite repeat_length, N2Nat.id. lia.
Qed.

Lemma strip_lsd_inr : forall ds z t, strip_lsd_zeros ds = (z, t) -> inr ds -> inr t.
Proof.
  intros ds z t E H. destruct (strip_lsd_spec ds z t E) as [-> _]. apply inr_app in H. apply H.
Qed.

Lemma strip_msd_val : forall ds, digits_val (strip_msd_zeros ds) = digits_val ds.
Proof.
  induction ds as [|d r IH]; [reflexivity|]. simpl strip_msd_zeros.
  rewrite digits_val_cons, <- IH. destruct (strip_msd_zeros r) as [|a r'].
  - change (digits_val []) with 0. destruct (N.eqb_spec d 0) as [->|_].
    + reflexivity.
    + rewrite digits_val_single. lia.
  - rewrite digits_val_cons. reflexivity.
Qed.

Lemma strip_msd_inr : forall ds, inr ds -> inr (strip_msd_zeros ds).
Proof.
  induction ds as [|d r IH]; intros H; [exact H|]. apply inr_inv in H. destruct H as [Hd Hr].
  specialize (IH Hr). simpl strip_msd_zeros. destruct (strip_msd_zeros r) as [|a r'].
  - destruct (d =? 0); [apply inr_nil | apply inr_cons; [exact Hd | apply inr_nil]].
  - apply inr_cons; assumption.
Qed.

Lemma strip_msd_last : forall ds, strip_msd_zeros ds = [] \/ last (strip_msd_zeros ds) 0 <> 0.
Proof.
  induction ds as [|d r IH]; [left; reflexivity|]. simpl strip_msd_zeros.
  destruct (strip_msd_zeros r) as [|a r'].
  - destruct (N.eqb_spec d 0) as [->|Hd]; [left; reflexivity | right; exact Hd].
  - right. destruct IH as [IH|IH]; [discriminate|]. exact IH.
Qed.

(** ** bounds of a digit list through its last digit *)

Lemma digits_val_ge_last : forall l, l <> [] -> B64 ^ (lenN l - 1) * last l 0 <= digits_val l.
Proof. intros l Hl. rewrite (digits_val_last l Hl). lia. Qed.

Lemma digits_val_lt_last : forall l, l <> [] -> inr l ->
  digits_val l < B64 ^ (lenN l - 1) * (last l 0 + 1).
Proof.
  intros l Hl H. rewrite (digits_val_last l Hl).
  pose proof (digits_val_lt (removelast l) (inr_removelast l H)) as Hlt.
  rewrite (lenN_removelast l Hl) in Hlt. lia.
Qed.

Lemma digits_val_ge_p2 : forall l, l <> [] -> last l 0 <> 0 -> 2 ^ (64 * (lenN l - 1)) <= digits_val l.
Proof.
  intros l Hne Hl. pose proof (digits_val_ge_last l Hne) as H. rewrite B64_pow in H.
  pose proof (p2_pos (64 * (lenN l - 1))). nia.
Qed.

Lemma below_zero_top : forall ds, inr ds -> 2 <= lenN ds -> last ds 0 = 0 ->
  2 ^ (64 * lenN ds - 65) <= digits_val ds -> 2 ^ 63 <= last (removelast ds) 0.
Proof.
  intros ds Hr Hlen Hl Hb. assert (Hds : ds <> []) by (intros ->; rewrite lenN_nil in Hlen; lia).
  pose proof (digits_val_last ds Hds) as E. rewrite Hl, N.mul_0_r, N.add_0_r in E.
  pose proof (lenN_removelast ds Hds) as El. set (ds' := removelast ds) in *.
  assert (Hds' : ds' <> []) by (intros Hc; rewrite Hc, lenN_nil in El; lia).
  pose proof (digits_val_lt_last ds' Hds' (inr_removelast ds Hr)) as Hlt. rewrite <- E, B64_pow in Hlt.
  destruct (N.le_gt_cases (2 ^ 63) (last ds' 0)) as [Hok|Hbad]; [exact Hok|exfalso].
  assert (Hx : 2 ^ (64 * (lenN ds' - 1)) * (last ds' 0 + 1) <= 2 ^ (64 * (lenN ds' - 1)) * 2 ^ 63)
    by (apply N.mul_le_mono_l; lia).
  rewrite <- p2_add in Hx. replace (64 * (lenN ds' - 1) + 63) with (64 * lenN ds - 65) in Hx by lia. lia.
Qed.

(** a value that needs [len >= 2] digits meets the lower bounds the invariant
    asks of a mantissa of that length *)
Lemma big_of_ge : forall len v, 2 <= len -> 2 ^ (64 * (len - 1)) <= v ->
  B64 <= v /\ 2 ^ (64 * len - 65) <= v.
Proof.
  intros len v Hl Hv. rewrite B64_eq. split; (eapply N.le_trans; [apply p2_le | exact Hv]); lia.
Qed.

(** the bit width of a digit list whose last digit is not zero *)
Lemma size_digits : forall l, l <> [] -> inr l -> last l 0 <> 0 ->
  N.size (digits_val l) = 64 * (lenN l - 1) + N.size (last l 0).
Proof.
  intros l Hl H Hlast.
  pose proof (digits_val_ge_last l Hl) as Hlo. pose proof (digits_val_lt_last l Hl H) as Hhi.
  rewrite B64_pow in Hlo, Hhi.
  pose proof (size_lo _ Hlast) as Slo. pose proof (N.size_gt (last l 0)) as Shi.
  pose proof (size_pos _ Hlast) as Hs.
  replace (64 * (lenN l - 1) + N.size (last l 0)) with (64 * (lenN l - 1) + (N.size (last l 0) - 1) + 1) by lia.
  apply size_unique.
  - rewrite p2_add. eapply N.le_trans; [apply N.mul_le_mono_l; exact Slo | exact Hlo].
  - replace (64 * (lenN l - 1) + (N.size (last l 0) - 1) + 1) with (64 * (lenN l - 1) + N.size (last l 0)) by lia.
    rewrite p2_add. eapply N.lt_le_trans; [exact Hhi | apply N.mul_le_mono_l; lia].
Qed.
