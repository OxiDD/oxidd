(** * [impl Add for Natural]: the sum is exact (Num/Natural.v, [nat_add])

    [nat_add_spec]: for operands satisfying the invariant the result satisfies
    it, and denotes [x + y] -- or NaN exactly when an operand is NaN or the
    exponent of the sum (its number of trailing zero bits) is not below
    [u64::MAX]. *)

From Coq Require Import List NArith Bool Lia.
From OxiVerif Require Import Num.Natural Num.NatBase Num.NaturalProofs.
Import ListNotations.
Local Open Scope N_scope.

(** ** The two branches of [nat_add] as functions *)

(** different exponents, [expo l < expo r < u64::MAX] *)
Definition add_diff (l r : natural) : natural :=
  let l_shl := expo l in
  let r_shl := expo r in
  let l_bw := bit_width_digits (digits l) l_shl in
  let r_bw := bit_width_digits (digits r) r_shl in
  let bw := N.max l_bw r_bw + 1 in
  let bit_len := bw - l_shl in
  let len := div_ceil bit_len 64 in
  let start_digit := (r_shl - l_shl) / 64 in
  let start_bit := (r_shl - l_shl) mod 64 in
  if bit_len <=? 65 then
    let s := hd 0 (digits l) + shl64 (hd 0 (digits r)) start_bit in
    if B64 <=? s then mkNat [s mod B64; 1] l_shl else mkNat [s] l_shl
  else
    let rs := repeat 0 (N.to_nat start_digit) ++ shl_digits start_bit 0 (digits r) in
    mkNat (fit (N.to_nat len) (add_digits 0 (digits l) rs)) l_shl.

(** equal exponents *)
Definition add_same (l r : natural) : natural :=
  let l_shl := expo l in
  let r_shl := expo r in
  let l_bw := bit_width_digits (digits l) l_shl in
  let r_bw := bit_width_digits (digits r) r_shl in
  let bw := N.max l_bw r_bw + 1 in
  let sum := add_digits 0 (digits l) (digits r) in
  let '(z, rest) := strip_lsd_zeros sum in
  let lsd := hd 0 rest in
  let bit_shr := shl_amount lsd in
  match checked_exp l_shl bit_shr z with
  | None => NAN
  | Some shl =>
    let bit_len := bw - shl in
    let len := div_ceil bit_len 64 in
    let next_lsd := hd 0 (tl rest) in
    let m := shr_digits bit_shr rest in
    if (bit_len <=? 65) && (shr64 next_lsd bit_shr =? 0) then mkNat [hd 0 m] shl
    else mkNat (fit (N.to_nat len) m) shl
  end.

Lemma nat_add_unfold : forall a b,
  nat_add a b =
  if len_is_zero b then (if is_nan b then b else a)
  else if len_is_zero a then (if is_nan a then a else b)
  else
    let l := if expo b <? expo a then b else a in
    let r := if expo b <? expo a then a else b in
    if expo l <? expo r then (if expo r =? U64MAX then NAN else add_diff l r)
    else add_same l r.
Proof.
  intros a b. unfold nat_add, add_diff, add_same.
  destruct (len_is_zero b); [reflexivity|]. destruct (len_is_zero a); [reflexivity|].
  destruct (expo b <? expo a); reflexivity.
Qed.

(** ** Helpers *)

Lemma div_ceil_64 : forall b, 64 * div_ceil b 64 <= b + 63 /\ b <= 64 * div_ceil b 64.
Proof.
  intros b. unfold div_ceil. change (64 - 1) with 63.
  pose proof (N.div_mod (b + 63) 64 ltac:(discriminate)) as E.
  pose proof (N.mod_lt (b + 63) 64 ltac:(discriminate)).
  set (q := (b + 63) / 64) in *. set (r := (b + 63) mod 64) in *. clearbody q r. lia.
Qed.

Lemma checked_exp_spec : forall a b z,
  checked_exp a b z = if a + (b + 64 * z) <=? U64MAX then Some (a + (b + 64 * z)) else None.
Proof.
  intros a b z. unfold checked_exp. replace (a + (b + 64 * z)) with (a + b + z * 64) by lia.
  destruct (N.ltb_spec U64MAX (a + b)) as [H1|H1].
  - destruct (N.leb_spec (a + b + z * 64) U64MAX); [lia | reflexivity].
  - destruct (N.ltb_spec U64MAX (z * 64)) as [H2|H2].
    + destruct (N.leb_spec (a + b + z * 64) U64MAX); [lia | reflexivity].
    + destruct (N.ltb_spec U64MAX (a + b + z * 64)) as [H3|H3];
        destruct (N.leb_spec (a + b + z * 64) U64MAX); try lia; reflexivity.
Qed.

(** [64 * len - 65 < size]: of the [len] digits at most the top one is zero *)
Lemma fit_Inv_len : forall ds e len, inr ds -> e <= U64MAX -> N.odd (digits_val ds) = true ->
  B64 <= digits_val ds -> 64 * N.of_nat len - 65 < N.size (digits_val ds) ->
  N.size (digits_val ds) <= 64 * N.of_nat len ->
  Inv (mkNat (fit len ds) e) /\ digits_val (fit len ds) = digits_val ds.
Proof.
  intros ds e len Hr He Ho Hbig Hlo Hhi.
  assert (Hlt : digits_val ds < B64 ^ N.of_nat len) by (rewrite B64_pow; apply size_le_iff; exact Hhi).
  pose proof (fit_val len ds Hr Hlt) as Ev. split; [|exact Ev].
  apply mk_Inv; [apply fit_inr; exact Hr | | exact He | rewrite Ev; exact Ho |].
  - intros Hc. apply (f_equal (@length N)) in Hc. rewrite fit_length in Hc. simpl in Hc. subst len.
    rewrite B64_eq in Hbig. apply size_gt_iff in Hbig. change (N.of_nat 0) with 0 in Hhi. lia.
  - right. rewrite Ev. split; [exact Hbig|]. unfold lenN. rewrite fit_length.
    apply size_gt_iff. exact Hlo.
Qed.

Lemma fit_Inv : forall ds e bl, inr ds -> e <= U64MAX -> N.odd (digits_val ds) = true ->
  bl - 1 <= N.size (digits_val ds) -> N.size (digits_val ds) <= bl -> B64 <= digits_val ds ->
  Inv (mkNat (fit (N.to_nat (div_ceil bl 64)) ds) e) /\
  digits_val (fit (N.to_nat (div_ceil bl 64)) ds) = digits_val ds.
Proof.
  intros ds e bl Hr He Ho Hlo Hhi Hbig. pose proof (div_ceil_64 bl) as L.
  assert (HsM : 64 < N.size (digits_val ds)) by (apply size_gt_iff; exact Hbig).
  apply fit_Inv_len; try assumption; rewrite N2Nat.id; lia.
Qed.

Lemma odd_part_digits : forall ds z lsd rest, inr ds -> strip_lsd_zeros ds = (z, lsd :: rest) ->
  lsd <> 0 /\ inr (lsd :: rest) /\ ctz lsd < 64 /\
  N.odd (digits_val (lsd :: rest) / 2 ^ ctz lsd) = true /\
  digits_val ds = digits_val (lsd :: rest) / 2 ^ ctz lsd * 2 ^ (ctz lsd + 64 * z).
Proof.
  intros ds z lsd rest Hr Est.
  pose proof (strip_lsd_val ds z _ Est) as V. pose proof (strip_lsd_inr ds z _ Est Hr) as R.
  destruct (strip_lsd_spec ds z _ Est) as [_ [Hhd|Hhd]]; [discriminate|]. simpl hd in Hhd.
  destruct (inr_inv _ _ R) as [Rlsd _].
  assert (Hs : ctz lsd < 64).
  { pose proof (ctz_lt_size lsd Hhd). pose proof (size_lt_B64 lsd Rlsd). lia. }
  (* trailing zeros of a number are those of its non-zero lowest digit *)
  destruct (ctz_div_odd lsd Hhd) as [Ho E]. set (c := ctz lsd) in *. set (o := lsd / 2 ^ c) in *.
  assert (Es : digits_val (lsd :: rest) = (o + 2 ^ (64 - c) * digits_val rest) * 2 ^ c).
  { rewrite digits_val_cons, B64_eq, (p2_split 64 c) by lia. rewrite E at 1. lia. }
  split; [exact Hhd|]. split; [exact R|]. split; [exact Hs|].
  rewrite V, Es, N.div_mul by apply p2_nz. split.
  - rewrite N.odd_add, Ho, N.odd_mul, N.odd_pow by lia. reflexivity.
  - rewrite B64_pow, (p2_add c). lia.
Qed.

(** the test [next_lsd >> s == 0] for "the shifted digits above the first are zero" *)
Lemma next_digit_test : forall rest s, s < 64 ->
  (hd 0 rest / 2 ^ s <> 0 -> 1 <= digits_val rest / 2 ^ s) /\
  (hd 0 rest / 2 ^ s = 0 -> digits_val rest / 2 ^ s < 2 -> digits_val rest / 2 ^ s = 0).
Proof.
  intros [|nx r] s Hs; simpl hd.
  - change (digits_val []) with 0. rewrite N.div_0_l by apply p2_nz. split; [contradiction | reflexivity].
  - rewrite digits_val_cons. set (Y := digits_val r). split.
    + intros Hn. apply N.neq_0_lt_0 in Hn. apply N.le_trans with (nx / 2 ^ s); [lia|]. apply N.div_le_mono; [apply p2_nz | lia].
    + intros Hz Hlt. destruct (N.eq_dec Y 0) as [->|HY]; [rewrite N.mul_0_r, N.add_0_r; exact Hz|].
      exfalso. apply (N.lt_irrefl 2). eapply N.le_lt_trans; [|exact Hlt].
      apply N.div_le_lower_bound; [apply p2_nz|]. rewrite N.mul_comm, <- p2_succ.
      pose proof (p2_le (s + 1) 64 ltac:(lia)) as H. rewrite <- B64_eq in H. nia.
Qed.

(** ** Different exponents *)

Lemma add_diff_spec : forall l r, Inv l -> Inv r -> mval l <> 0 -> mval r <> 0 ->
  expo l < expo r -> expo r <> U64MAX ->
  Inv (add_diff l r) /\
  val (add_diff l r) = Some (mval l * 2 ^ expo l + mval r * 2 ^ expo r).
Proof.
  intros l r Hl Hr Hml Hmr Hlt HrM.
  pose proof (inv_exp r Hr) as Her.
  assert (HlM : expo l <> U64MAX) by lia.
  set (D := expo r - expo l). set (M := mval l + mval r * 2 ^ D).
  assert (EM : M * 2 ^ expo l = mval l * 2 ^ expo l + mval r * 2 ^ expo r).
  { unfold M. rewrite (p2_split (expo r) (expo l)) by lia. fold D. lia. }
  assert (OM : N.odd M = true).
  { unfold M. rewrite N.odd_add, (inv_odd l Hl Hml), N.odd_mul, N.odd_pow by (unfold D; lia).
    rewrite andb_false_r. reflexivity. }
  rewrite <- EM.
  (* bit widths *)
  pose proof (size_add_lo (mval l) (mval r * 2 ^ D)) as SMlo.
  pose proof (size_add_hi (mval l) (mval r * 2 ^ D)) as SMhi.
  pose proof (size_mul_p2 (mval r) D Hmr) as SrD. rewrite SrD in SMlo, SMhi. fold M in SMlo, SMhi.
  pose proof (size_pos _ Hmr) as Hsr.
  unfold add_diff.
  change (bit_width_digits (digits l) (expo l)) with (bit_width l).
  change (bit_width_digits (digits r) (expo r)) with (bit_width r).
  rewrite (bit_width_spec l Hl), (bit_width_spec r Hr). fold D.
  set (bl := N.max (N.size (mval l) + expo l) (N.size (mval r) + expo r) + 1 - expo l).
  assert (Ebl : bl = N.max (N.size (mval l)) (N.size (mval r) + D) + 1) by (unfold bl, D; lia).
  clearbody bl. assert (HD : 0 < D) by (unfold D; lia). clearbody D. clear Hlt Her HrM EM.
  destruct (N.leb_spec bl 65) as [Hsmall|Hlarge].
  - (* both operands inline *)
    assert (Hshift : mval r * 2 ^ D < B64) by (rewrite B64_eq; apply size_le_iff; lia).
    assert (Il : mval l < B64) by (rewrite B64_eq; apply size_le_iff; lia).
    assert (Ir : mval r < B64).
    { eapply N.le_lt_trans; [apply mul_p2_ge | exact Hshift]. }
    rewrite (inline_digits l Hl Il), (inline_digits r Hr Ir). simpl hd.
    rewrite (N.mod_small D 64) by lia. rewrite (shl64_small _ _ Hshift). fold M.
    assert (HM65 : M < 2 ^ 65) by (apply size_le_iff; lia).
    assert (He : expo l <= U64MAX) by apply (inv_exp l Hl).
    destruct (N.leb_spec B64 M) as [Hc|Hnc].
    + assert (E1 : M / B64 = 1).
      { assert (M / B64 < 2) by (apply N.div_lt_upper_bound; [discriminate | exact HM65]).
        assert (1 <= M / B64) by (apply N.div_le_lower_bound; [discriminate | exact Hc]). lia. }
      destruct (Inv_pair M (expo l) Hc) as [HI EV]; [|exact He | exact OM |].
      { eapply N.lt_trans; [exact HM65 | reflexivity]. }
      rewrite E1 in HI, EV. split; [exact HI|]. rewrite val_mk_some, EV by exact HlM. reflexivity.
    + split; [apply Inv_single; assumption|]. rewrite val_mk_some, digits_val_single by exact HlM. reflexivity.
  - (* general case *)
    set (sd := D / 64). set (sb := D mod 64).
    assert (ED : D = 64 * sd + sb) by (apply N.div_mod; discriminate).
    assert (Hsb : sb < 64) by (apply N.mod_lt; discriminate).
    destruct (shl_digits_spec sb (digits r) 0 Hsb (p2_pos sb) (inv_inr r Hr)) as [Vs Rs].
    set (rs := repeat 0 (N.to_nat sd) ++ shl_digits sb 0 (digits r)).
    assert (Vrs : digits_val rs = mval r * 2 ^ D).
    { unfold rs. rewrite digits_val_app, digits_val_repeat0, Vs, lenN_repeat, N2Nat.id, B64_pow, ED, p2_add.
      unfold mval. lia. }
    assert (Rrs : inr rs) by (apply inr_app; split; [apply inr_repeat0 | exact Rs]).
    set (ds := add_digits 0 (digits l) rs).
    assert (Vds : digits_val ds = M) by (unfold ds; rewrite add_digits_val, Vrs; unfold M, mval; lia).
    assert (Rds : inr ds) by (apply add_digits_inr; [lia | apply (inv_inr l Hl) | exact Rrs]).
    destruct (fit_Inv ds (expo l) bl Rds (inv_exp l Hl)) as [HI HV]; rewrite ?Vds; try assumption; try lia.
    { rewrite B64_eq. apply size_gt_iff. lia. }
    split; [exact HI|]. rewrite val_mk_some, HV, Vds by exact HlM. reflexivity.
Qed.

(** ** Equal exponents *)

Lemma add_same_spec : forall l r, Inv l -> Inv r -> mval l <> 0 -> mval r <> 0 ->
  expo l = expo r ->
  Inv (add_same l r) /\ val (add_same l r) = norm ((mval l + mval r) * 2 ^ expo l).
Proof.
  intros l r Hl Hr Hml Hmr Ee.
  set (S := mval l + mval r). assert (HS : S <> 0) by (unfold S; lia).
  pose proof (size_add_lo (mval l) (mval r)) as SSlo. pose proof (size_add_hi (mval l) (mval r)) as SShi.
  fold S in SSlo, SShi.
  unfold add_same.
  change (bit_width_digits (digits l) (expo l)) with (bit_width l).
  change (bit_width_digits (digits r) (expo r)) with (bit_width r).
  rewrite (bit_width_spec l Hl), (bit_width_spec r Hr), <- Ee.
  set (sum := add_digits 0 (digits l) (digits r)).
  assert (Vsum : digits_val sum = S) by (unfold sum; rewrite add_digits_val; unfold S, mval; lia).
  assert (Rsum : inr sum) by (apply add_digits_inr; [lia | apply (inv_inr l Hl) | apply (inv_inr r Hr)]).
  destruct (strip_lsd_zeros sum) as [z [|lsd rest]] eqn:Est.
  { exfalso. apply HS. rewrite <- Vsum, (strip_lsd_val sum z [] Est). apply N.mul_0_r. }
  destruct (odd_part_digits sum z lsd rest Rsum Est) as (Hlsd & Rrest & Hs & OM & ES). rewrite Vsum in ES.
  simpl hd. simpl tl. unfold shl_amount.
  set (s := ctz lsd) in *. set (M := digits_val (lsd :: rest) / 2 ^ s) in *. set (t := s + 64 * z) in *.
  assert (HMnz : M <> 0) by (apply odd_nz; exact OM).
  assert (SM : N.size S = N.size M + t) by (rewrite ES; apply size_mul_p2; exact HMnz).
  pose proof (size_pos M HMnz) as HsM.
  assert (EV : S * 2 ^ expo l = M * 2 ^ (expo l + t)) by (rewrite ES, (p2_add (expo l)); lia).
  rewrite EV, checked_exp_spec. fold t.
  clearbody S t. clear Vsum Rsum Est ES HS EV sum.
  destruct (N.leb_spec (expo l + t) U64MAX) as [Hfit|Hover].
  2:{ split; [exact Inv_NAN|]. rewrite val_NAN. symmetry. apply norm_big_ctz; [exact HMnz|].
      rewrite (ctz_odd M OM). lia. }
  (* the value of the result is the same in both shapes *)
  assert (Hval : forall ds, digits_val ds = M -> val (mkNat ds (expo l + t)) = norm (M * 2 ^ (expo l + t))).
  { intros ds Vds. rewrite <- (N.min_l _ _ Hfit) at 1. apply (val_sat_exp ds M); [exact Vds | exact OM | reflexivity]. }
  set (bl := N.max (N.size (mval l) + expo l) (N.size (mval r) + expo l) + 1 - (expo l + t)).
  assert (Hbl : bl - 1 <= N.size M <= bl) by (unfold bl; lia).
  clearbody bl. clear SSlo SShi SM.
  (* the shifted digits *)
  destruct (shr_digits_spec s (lsd :: rest) Hs Rrest) as [Vm Rm]. fold M in Vm.
  set (m := shr_digits s (lsd :: rest)) in *.
  assert (Vm' : hd 0 m + B64 * (digits_val rest / 2 ^ s) = M).
  { rewrite <- Vm. unfold m. simpl shr_digits. simpl hd. rewrite digits_val_cons.
    destruct (inr_inv _ _ Rrest) as [_ Rr]. destruct (shr_digits_spec s rest Hs Rr) as [-> _]. reflexivity. }
  destruct (next_digit_test rest s Hs) as [Tnz Tz].
  destruct ((bl <=? 65) && (shr64 (hd 0 rest) s =? 0)) eqn:Ec.
  - (* one digit *)
    apply andb_prop in Ec. destruct Ec as [Hb65 Hnext]. apply N.leb_le in Hb65. apply N.eqb_eq in Hnext.
    rewrite shr64_eq in Hnext.
    assert (HM65 : M < B64 * 2) by (apply (size_le_iff M 65); lia).
    assert (E0 : digits_val rest / 2 ^ s = 0).
    { apply (Tz Hnext). apply (N.mul_lt_mono_pos_l B64); [reflexivity|].
      eapply N.le_lt_trans; [|exact HM65]. rewrite <- Vm'. apply N.le_add_l. }
    rewrite E0, N.mul_0_r, N.add_0_r in Vm'.
    assert (Hm0 : hd 0 m < B64) by (apply inr_hd; exact Rm).
    split; [|apply Hval; rewrite digits_val_single; exact Vm'].
    rewrite <- Vm' in OM. apply Inv_single; [exact Hm0 | exact Hfit | exact OM].
  - (* several digits *)
    assert (HB : B64 <= M).
    { apply andb_false_iff in Ec. destruct Ec as [Hb65|Hnext].
      - apply N.leb_gt in Hb65. rewrite B64_eq. apply size_gt_iff. lia.
      - apply N.eqb_neq in Hnext. rewrite shr64_eq in Hnext. specialize (Tnz Hnext).
        rewrite <- Vm'. apply N.le_trans with (B64 * 1); [reflexivity|].
        eapply N.le_trans; [apply N.mul_le_mono_l; exact Tnz | apply N.le_add_l]. }
    destruct (fit_Inv m (expo l + t) bl Rm Hfit) as [HI HV]; rewrite ?Vm; try assumption; try apply Hbl.
    split; [exact HI|]. apply Hval. rewrite HV. exact Vm.
Qed.

(** ** The theorem *)

Lemma norm_sum_diff : forall ml el mr er, N.odd ml = true -> mr <> 0 -> el < er -> el <> U64MAX ->
  el <= U64MAX -> norm (ml * 2 ^ el + mr * 2 ^ er) = Some (ml * 2 ^ el + mr * 2 ^ er).
Proof.
  intros ml el mr er Ol Hmr Hlt HM Hle.
  replace (ml * 2 ^ el + mr * 2 ^ er) with ((ml + mr * 2 ^ (er - el)) * 2 ^ el).
  2:{ rewrite (p2_split er el) by lia. lia. }
  apply norm_odd; [|lia].
  rewrite N.odd_add, Ol, N.odd_mul, N.odd_pow by lia. rewrite andb_false_r. reflexivity.
Qed.

(** what [nat_add_spec] says of a pair of values *)
Definition sum_val (va vb : option N) : option N :=
  match va, vb with Some x, Some y => norm (x + y) | _, _ => None end.

Lemma sum_val_comm : forall va vb, sum_val vb va = sum_val va vb.
Proof. intros [x|] [y|]; try reflexivity. unfold sum_val. rewrite N.add_comm. reflexivity. Qed.

Lemma add_zero_r : forall a z, Inv a -> Inv z -> mval z = 0 ->
  Inv (if is_nan z then z else a) /\ val (if is_nan z then z else a) = sum_val (val a) (val z).
Proof.
  intros a z Ha Hz Zz. unfold is_nan. destruct (N.eqb_spec (expo z) U64MAX) as [Ez|Ez].
  - split; [exact Hz|]. rewrite (val_nan z Ez). destruct (val a); reflexivity.
  - split; [exact Ha|]. rewrite (val_some z Ez), Zz, N.mul_0_l.
    destruct (val a) as [x|] eqn:Ea; [|reflexivity]. unfold sum_val. rewrite N.add_0_r.
    symmetry. apply (val_norm a x Ha Ea).
Qed.

Lemma add_ordered : forall l r, Inv l -> Inv r -> mval l <> 0 -> mval r <> 0 -> expo l <= expo r ->
  let res := if expo l <? expo r then (if expo r =? U64MAX then NAN else add_diff l r)
             else add_same l r in
  Inv res /\ val res = sum_val (val l) (val r).
Proof.
  intros l r Hl Hr Hml Hmr Hle. cbv zeta.
  pose proof (inv_exp l Hl) as Hel. pose proof (inv_exp r Hr) as Her.
  destruct (N.ltb_spec (expo l) (expo r)) as [Hlt|Hge].
  - destruct (N.eqb_spec (expo r) U64MAX) as [Er|Er].
    + split; [exact Inv_NAN|]. rewrite (val_nan r Er), val_NAN. destruct (val l); reflexivity.
    + destruct (add_diff_spec l r Hl Hr Hml Hmr Hlt Er) as [HI HV]. split; [exact HI|].
      assert (El : expo l <> U64MAX) by lia.
      rewrite HV, (val_some l El), (val_some r Er). symmetry.
      apply norm_sum_diff; try assumption. apply (inv_odd l Hl Hml).
  - assert (Ee : expo l = expo r) by lia.
    destruct (add_same_spec l r Hl Hr Hml Hmr Ee) as [HI HV]. split; [exact HI|]. rewrite HV.
    destruct (N.eq_dec (expo l) U64MAX) as [El|El].
    + rewrite (val_nan l El). apply norm_big_ctz; lia.
    + assert (Er : expo r <> U64MAX) by lia.
      rewrite (val_some l El), (val_some r Er), <- Ee. unfold sum_val. rewrite <- N.mul_add_distr_r. reflexivity.
Qed.

Theorem nat_add_spec : forall a b, Inv a -> Inv b ->
  Inv (nat_add a b) /\
  val (nat_add a b) =
    match val a, val b with
    | Some x, Some y => norm (x + y)
    | _, _ => None
    end.
Proof.
  intros a b Ha Hb. rewrite nat_add_unfold. fold (sum_val (val a) (val b)).
  destruct (len_is_zero b) eqn:Zb.
  { apply add_zero_r; [exact Ha | exact Hb | apply (len_is_zero_iff b Hb), Zb]. }
  destruct (len_is_zero a) eqn:Za.
  { rewrite <- sum_val_comm. apply add_zero_r; [exact Hb | exact Ha | apply (len_is_zero_iff a Ha), Za]. }
  assert (Hma : mval a <> 0) by (intros Hz; apply (len_is_zero_iff a Ha) in Hz; congruence).
  assert (Hmb : mval b <> 0) by (intros Hz; apply (len_is_zero_iff b Hb) in Hz; congruence).
  cbv zeta. destruct (N.ltb_spec (expo b) (expo a)) as [Hsw|Hns].
  - rewrite <- sum_val_comm. apply (add_ordered b a Hb Ha Hmb Hma). lia.
  - apply (add_ordered a b Ha Hb Hma Hmb Hns).
Qed.
