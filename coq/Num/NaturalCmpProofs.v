(** * [PartialEq], [Hash], [PartialOrd] of [Natural] (Num/Natural.v)

    The representation is canonical: two values satisfying the invariant are
    [nat_eqb]-equal / feed the same data to the hasher iff they denote the
    same number (NaN equals NaN, as the derived [Eq] demands), and
    [partial_cmp] is the order of the denoted numbers ([None] iff an operand
    is NaN). *)

From Coq Require Import List NArith Bool Lia.
From OxiVerif Require Import Num.Natural Num.NatBase Num.NaturalProofs.
Import ListNotations.
Local Open Scope N_scope.

(** ** Digit lists with the same value *)

Lemma digits_val_inj : forall l r, length l = length r -> inr l -> inr r ->
  digits_val l = digits_val r -> l = r.
Proof.
  induction l as [|a l IH]; intros r Hlen Hl Hr E.
  - destruct r; [reflexivity | discriminate].
  - destruct r as [|b r]; [discriminate|].
    apply inr_inv in Hl. destruct Hl as [Ha Hl]. apply inr_inv in Hr. destruct Hr as [Hb Hr].
    rewrite !digits_val_cons in E.
    assert (Eab : a = b).
    { assert (Em : (a + B64 * digits_val l) mod B64 = (b + B64 * digits_val r) mod B64) by (rewrite E; reflexivity).
      rewrite !(N.mul_comm B64), !N.mod_add, !N.mod_small in Em by (assumption || discriminate). exact Em. }
    subst b. f_equal. apply IH; [simpl in Hlen; lia | assumption | assumption|].
    unfold B64 in E. lia.
Qed.

Lemma canon_digits_eq : forall l r, inr l -> inr r -> l <> [] -> r <> [] ->
  last l 0 <> 0 -> last r 0 <> 0 -> digits_val l = digits_val r -> l = r.
Proof.
  intros l r Hl Hr Nl Nr Ll Lr E.
  assert (X : forall l r, inr l -> inr r -> l <> [] -> r <> [] -> last l 0 <> 0 -> last r 0 <> 0 ->
    digits_val l = digits_val r -> ~ lenN l < lenN r).
  { clear. intros l r Hl Hr Nl Nr Ll Lr E Hlt.
    pose proof (digits_val_lt l Hl) as H1. pose proof (digits_val_ge_last r Nr) as H2.
    rewrite B64_pow in H1, H2.
    pose proof (p2_le (64 * lenN l) (64 * (lenN r - 1)) ltac:(lia)) as H3.
    pose proof (p2_pos (64 * (lenN r - 1))). nia. }
  apply digits_val_inj; try assumption.
  pose proof (X l r Hl Hr Nl Nr Ll Lr E). pose proof (X r l Hr Hl Nr Nl Lr Ll (eq_sym E)).
  unfold lenN in *. lia.
Qed.

Lemma list_eqb_eq : forall l r, list_eqb l r = true <-> l = r.
Proof.
  induction l as [|a l IH]; intros [|b r]; simpl; split; intros H; try reflexivity; try discriminate.
  - apply andb_prop in H. destruct H as [H1 H2]. apply N.eqb_eq in H1. apply IH in H2. subst. reflexivity.
  - inversion H; subst. rewrite N.eqb_refl. simpl. apply IH. reflexivity.
Qed.

(** ** [mantissa()] *)

Lemma mantissa_spec : forall n, Inv n ->
  inr (mantissa n) /\ mantissa n <> [] /\ digits_val (mantissa n) = mval n /\
  (mval n <> 0 -> last (mantissa n) 0 <> 0) /\ (mval n = 0 -> mantissa n = [0]).
Proof.
  intros n H. pose proof (inv_inr n H) as Hr. pose proof (inv_ne n H) as Hne.
  pose proof (inv_big n H) as Hb. unfold mantissa, mval in *.
  destruct (digits n) as [|d0 [|d1 l]]; [contradiction| |].
  - rewrite digits_val_single. repeat split; try assumption; try discriminate.
    + intros Hd. exact Hd.
    + intros ->. reflexivity.
  - set (ds := d0 :: d1 :: l) in *. destruct (Hb (length_ge2 _ _ _ _)) as [Hb1 Hb2].
    assert (Hds : ds <> []) by discriminate.
    destruct (N.eqb_spec (last ds 0) 0) as [Hz|Hnz].
    + pose proof (digits_val_last ds Hds) as E. rewrite Hz, N.mul_0_r, N.add_0_r in E.
      set (ds' := removelast ds) in *.
      assert (Hds' : ds' <> []) by (unfold ds', ds; simpl; destruct l; discriminate).
      assert (Hr' : inr ds') by (apply inr_removelast; exact Hr).
      repeat split; try assumption; try (symmetry; exact E).
      * intros _ Hl0. assert (Hlen : 2 <= lenN ds) by (unfold ds; rewrite !lenN_cons; lia).
        pose proof (below_zero_top ds Hr Hlen Hz Hb2) as H63. fold ds' in H63. rewrite Hl0 in H63. exact (H63 eq_refl).
      * intros Hc. unfold B64 in Hb1. lia.
    + repeat split; try assumption.
      * intros _. exact Hnz.
      * intros Hc. unfold B64 in Hb1. lia.
Qed.

(** ** The representation is canonical *)

Lemma canon : forall a b, Inv a -> Inv b -> expo a <> U64MAX -> expo b <> U64MAX ->
  (val a = val b <-> expo a = expo b /\ mantissa a = mantissa b).
Proof.
  intros a b Ha Hb Ea Eb. rewrite (val_some a Ea), (val_some b Eb).
  destruct (mantissa_spec a Ha) as [Ra [Na [Va [La Za]]]].
  destruct (mantissa_spec b Hb) as [Rb [Nb [Vb [Lb Zb]]]].
  split.
  - intros E. inversion E as [E']. clear E.
    destruct (N.eq_dec (mval a) 0) as [Hza|Hnza].
    + assert (Hzb : mval b = 0).
      { rewrite Hza, N.mul_0_l in E'. pose proof (p2_pos (expo b)). nia. }
      split.
      * destruct (inv_zero a Ha Hza); [|contradiction]. destruct (inv_zero b Hb Hzb); [|contradiction]. congruence.
      * rewrite (Za Hza), (Zb Hzb). reflexivity.
    + assert (Hnzb : mval b <> 0).
      { intros Hzb. rewrite Hzb, N.mul_0_l in E'. pose proof (p2_pos (expo a)). nia. }
      destruct (odd_p2_unique _ _ _ _ (inv_odd a Ha Hnza) (inv_odd b Hb Hnzb) E') as [Em Ee].
      split; [exact Ee|]. apply canon_digits_eq; auto. congruence.
  - intros [Ee Em]. rewrite <- Va, <- Vb, Em, Ee. reflexivity.
Qed.

(** [==]: equal iff the same number (or both NaN) *)
Theorem nat_eqb_spec : forall a b, Inv a -> Inv b -> (nat_eqb a b = true <-> val a = val b).
Proof.
  intros a b Ha Hb. unfold nat_eqb, is_nan.
  destruct (N.eqb_spec (expo a) (expo b)) as [Ee|Ene]; simpl negb; cbv iota.
  - destruct (N.eqb_spec (expo a) U64MAX) as [Ea|Ea].
    + rewrite (val_nan a Ea), (val_nan b ltac:(congruence)). split; reflexivity.
    + assert (Eb : expo b <> U64MAX) by congruence. rewrite list_eqb_eq, (canon a b Ha Hb Ea Eb).
      split; [intros Em; split; assumption | intros [_ Em]; exact Em].
  - split; [discriminate|]. intros E. exfalso.
    destruct (N.eq_dec (expo a) U64MAX) as [Ea|Ea].
    + rewrite (val_nan a Ea) in E. assert (Eb : expo b <> U64MAX) by congruence.
      rewrite (val_some b Eb) in E. discriminate.
    + destruct (N.eq_dec (expo b) U64MAX) as [Eb|Eb].
      * rewrite (val_nan b Eb), (val_some a Ea) in E. discriminate.
      * apply (canon a b Ha Hb Ea Eb) in E. destruct E. contradiction.
Qed.

(** [Hash]: the same data is hashed iff the same number (or both NaN) *)
Theorem hash_key_spec : forall a b, Inv a -> Inv b -> (hash_key a = hash_key b <-> val a = val b).
Proof.
  intros a b Ha Hb. unfold hash_key, is_nan.
  destruct (N.eqb_spec (expo a) U64MAX) as [Ea|Ea]; destruct (N.eqb_spec (expo b) U64MAX) as [Eb|Eb].
  - rewrite (val_nan a Ea), (val_nan b Eb). split; reflexivity.
  - rewrite (val_nan a Ea), (val_some b Eb). split; discriminate.
  - rewrite (val_nan b Eb), (val_some a Ea). split; discriminate.
  - rewrite (canon a b Ha Hb Ea Eb). split.
    + intros E. split; congruence.
    + intros [E1 E2]. rewrite E1, E2. reflexivity.
Qed.

(** ** Comparison *)

Lemma compare_mul_r : forall a b c, 0 < c -> (a * c ?= b * c) = (a ?= b).
Proof.
  intros a b c Hc. destruct (N.compare_spec a b) as [->|Hlt|Hgt].
  - apply N.compare_refl.
  - apply N.compare_lt_iff. nia.
  - apply N.compare_gt_iff. nia.
Qed.

Lemma size_lt_lt : forall x y, N.size x < N.size y -> x < y.
Proof.
  intros x y H. pose proof (N.size_gt x) as Hx.
  assert (Hy : 2 ^ N.size x <= y) by (apply size_gt_iff; exact H). lia.
Qed.

(** the value of a most-significant-digit-first list *)
Definition bev (l : list N) : N := digits_val (rev l).

Lemma bev_cons : forall a l, bev (a :: l) = bev l + B64 ^ lenN l * a.
Proof.
  intros a l. unfold bev. simpl rev. rewrite digits_val_app, digits_val_single.
  unfold lenN. rewrite rev_length. reflexivity.
Qed.

Lemma inr_rev : forall l, inr l -> inr (rev l).
Proof. intros l H. apply Forall_rev. exact H. Qed.

Lemma bev_lt : forall l, inr l -> bev l < B64 ^ lenN l.
Proof.
  intros l H. unfold bev. pose proof (digits_val_lt (rev l) (inr_rev l H)) as X.
  unfold lenN in *. rewrite rev_length in X. exact X.
Qed.

Lemma bev_pos : forall l, l <> [] -> last l 0 <> 0 -> 0 < bev l.
Proof.
  intros l Hne Hl. unfold bev. rewrite (app_removelast_last 0 Hne), rev_app_distr. simpl rev. simpl app.
  rewrite digits_val_cons. lia.
Qed.

(** [l] read as the top digits of an [n]-digit number *)
Definition padv (n : N) (l : list N) : N := bev l * B64 ^ (n - lenN l).

Lemma padv_cons : forall n a l, lenN l < n ->
  padv n (a :: l) = padv (n - 1) l + a * B64 ^ (n - 1).
Proof.
  intros n a l H. unfold padv. rewrite bev_cons, lenN_cons, N.mul_add_distr_r.
  replace (n - (lenN l + 1)) with (n - 1 - lenN l) by lia. f_equal.
  rewrite (N.mul_comm _ a), <- N.mul_assoc, <- N.pow_add_r. do 2 f_equal. lia.
Qed.

Lemma padv_lt : forall n l, inr l -> lenN l <= n -> padv n l < B64 ^ n.
Proof.
  intros n l Hl H. unfold padv. replace n with (lenN l + (n - lenN l)) at 2 by lia.
  rewrite N.pow_add_r. apply N.mul_lt_mono_pos_r; [apply B64p_pos | apply bev_lt; exact Hl].
Qed.

Lemma padv_pos : forall n l, l <> [] -> last l 0 <> 0 -> 0 < padv n l.
Proof.
  intros n l Hne Hl. apply N.mul_pos_pos; [apply bev_pos; assumption | apply B64p_pos].
Qed.

Lemma lex_lt : forall a b P X Y, X < P -> a < b -> X + a * P < Y + b * P.
Proof.
  intros a b P X Y HX Hab.
  assert (Hm : (a + 1) * P <= b * P) by (apply N.mul_le_mono_r; lia).
  rewrite N.mul_add_distr_r, N.mul_1_l in Hm. lia.
Qed.

Lemma last_cons_ne : forall (a : N) l, (a :: l <> [] -> last (a :: l) 0 <> 0) -> l <> [] -> last l 0 <> 0.
Proof. intros a l H Hne. specialize (H ltac:(discriminate)). destruct l; [contradiction | exact H]. Qed.

(** the comparison loop compares the digit strings as fractions *)
Lemma cmp_streams_spec : forall l r n, inr l -> inr r ->
  (l <> [] -> last l 0 <> 0) -> (r <> [] -> last r 0 <> 0) ->
  lenN l <= n -> lenN r <= n ->
  cmp_streams l r = (padv n l ?= padv n r).
Proof.
  induction l as [|a l IH]; intros [|b r] n Hl Hr Ll Lr Nl Nr; simpl cmp_streams; symmetry.
  - apply N.compare_refl.
  - apply N.compare_lt_iff, padv_pos; [discriminate | apply Lr; discriminate].
  - apply N.compare_gt_iff, padv_pos; [discriminate | apply Ll; discriminate].
  - apply inr_inv in Hl. destruct Hl as [Ha Hl]. apply inr_inv in Hr. destruct Hr as [Hb Hr].
    rewrite lenN_cons in Nl, Nr. rewrite !padv_cons by lia.
    pose proof (padv_lt (n - 1) l Hl ltac:(lia)) as Bl.
    pose proof (padv_lt (n - 1) r Hr ltac:(lia)) as Br.
    destruct (N.compare_spec a b) as [->|Hlt|Hgt].
    + rewrite (IH r (n - 1) Hl Hr (last_cons_ne _ _ Ll) (last_cons_ne _ _ Lr)) by lia.
      destruct (N.compare_spec (padv (n - 1) l) (padv (n - 1) r)) as [->|H1|H1].
      * apply N.compare_refl.
      * apply N.compare_lt_iff, N.add_lt_mono_r, H1.
      * apply N.compare_gt_iff, N.add_lt_mono_r, H1.
    + apply N.compare_lt_iff, lex_lt; assumption.
    + apply N.compare_gt_iff, lex_lt; assumption.
Qed.

(** the mantissa shifted to the top of its digits *)
Lemma left_aligned_spec : forall ds, inr ds -> ds <> [] -> last ds 0 <> 0 -> N.odd (digits_val ds) = true ->
  let la := left_aligned ds in
  inr la /\ lenN la = lenN ds /\ (la <> [] -> last la 0 <> 0) /\
  bev la = digits_val ds * 2 ^ (64 * lenN ds - N.size (digits_val ds)).
Proof.
  intros ds Hr Hne Hl Ho. unfold left_aligned. rewrite lz64_eq.
  pose proof (msd_size ds Hr) as Hs. pose proof (size_pos _ Hl) as Hs1.
  set (k := 64 - N.size (last ds 0)). assert (Hk : k < 64) by (unfold k; lia).
  destruct (shl_digits_spec k ds 0 Hk (p2_pos k) Hr) as [Vs Rs].
  set (sh := shl_digits k 0 ds) in *.
  assert (Lsh : lenN sh = lenN ds + 1) by (unfold lenN, sh; rewrite shl_digits_length; lia).
  assert (Nsh : sh <> []) by (intros Hc; rewrite Hc in Lsh; rewrite lenN_nil in Lsh; lia).
  pose proof (size_digits ds Hne Hr Hl) as Sd.
  pose proof (lenN_pos ds Hne) as Hlen.
  assert (Ek : k = 64 * lenN ds - N.size (digits_val ds)) by (unfold k; lia).
  (* the digit shifted out at the top is zero *)
  assert (Hlt : digits_val sh < B64 ^ lenN ds).
  { rewrite Vs, N.add_0_l, B64_pow, N.mul_comm. apply size_le_iff.
    rewrite size_mul_p2 by (apply odd_nz; exact Ho). lia. }
  pose proof (digits_val_last sh Nsh) as E. rewrite Lsh in E. replace (lenN ds + 1 - 1) with (lenN ds) in E by lia.
  assert (Htop : last sh 0 = 0).
  { destruct (N.eq_dec (last sh 0) 0) as [|Hnz]; [assumption|exfalso].
    assert (B64 ^ lenN ds * 1 <= B64 ^ lenN ds * last sh 0) by (apply N.mul_le_mono_l; lia). lia. }
  rewrite Htop, N.mul_0_r, N.add_0_r in E.
  set (la := removelast sh) in *.
  assert (Rla : inr la) by (apply inr_removelast; exact Rs).
  assert (Lla : lenN la = lenN ds) by (unfold la; rewrite lenN_removelast by exact Nsh; lia).
  split; [apply inr_rev; exact Rla|]. split; [unfold lenN in *; rewrite rev_length; exact Lla|].
  split.
  - (* the least significant digit is not zero: the mantissa is odd and k < 64 *)
    intros _. destruct la as [|d0 la'] eqn:Ela.
    { rewrite lenN_nil in Lla. lia. }
    simpl rev. rewrite last_last. intros Hd0. subst d0.
    rewrite digits_val_cons, N.add_0_l in E. rewrite Vs, N.add_0_l in E.
    assert (Hc : ctz (2 ^ k * digits_val ds) = k) by (rewrite N.mul_comm; apply ctz_unique; exact Ho).
    assert (Hnz : 2 ^ k * digits_val ds <> 0) by (pose proof (p2_pos k); pose proof (odd_nz _ Ho); nia).
    assert (Hd : (2 ^ k * digits_val ds) mod 2 ^ 64 = 0).
    { rewrite E, B64_eq, N.mul_comm. apply N.mod_mul. apply p2_nz. }
    apply (mod_p2_ctz _ _ Hnz) in Hd. lia.
  - unfold bev. rewrite rev_involutive, <- E, Vs, <- Ek. lia.
Qed.

Lemma bit_width_mantissa : forall n, Inv n -> expo n <> U64MAX ->
  bit_width_digits (mantissa n) (expo n) = N.size (mval n * 2 ^ expo n).
Proof.
  intros n H E. destruct (mantissa_spec n H) as [R [Nn [V [L Z]]]].
  destruct (N.eq_dec (mval n) 0) as [Hz|Hnz].
  - rewrite (Z Hz), Hz, N.mul_0_l. destruct (inv_zero n H Hz) as [->|]; [reflexivity | contradiction].
  - rewrite bit_width_digits_spec; try assumption.
    + rewrite V. symmetry. apply size_mul_p2. exact Hnz.
    + right. eapply N.le_trans; [apply p2_le | apply digits_val_ge_p2; auto]. lia.
Qed.

(** a left-aligned mantissa padded to [n] digits, and the number itself, are the
    same up to the scaling that comparison ignores *)
Lemma align_scale : forall m e len n S, m < B64 ^ len -> len <= n -> N.size m + e = S ->
  m * 2 ^ (64 * len - N.size m) * B64 ^ (n - len) * 2 ^ S = m * 2 ^ e * 2 ^ (64 * n).
Proof.
  intros m e len n S Hm Hn HS. rewrite B64_pow in *. apply size_le_iff in Hm.
  rewrite <- !N.mul_assoc, <- !p2_add. do 2 f_equal. lia.
Qed.

(** [partial_cmp]: the order of the denoted numbers *)
Theorem partial_cmp_spec : forall a b, Inv a -> Inv b ->
  partial_cmp a b =
    match val a, val b with
    | Some x, Some y => Some (x ?= y)
    | _, _ => None
    end.
Proof.
  intros a b Ha Hb. unfold partial_cmp, is_nan.
  destruct (N.eqb_spec (expo a) U64MAX) as [Ea|Ea]; [rewrite (val_nan a Ea); reflexivity|].
  destruct (N.eqb_spec (expo b) U64MAX) as [Eb|Eb]; [rewrite (val_nan b Eb); destruct (val a); reflexivity|].
  simpl orb. cbv iota. rewrite (val_some a Ea), (val_some b Eb).
  destruct (mantissa_spec a Ha) as [Ra [Na [Va [La Za]]]].
  destruct (mantissa_spec b Hb) as [Rb [Nb [Vb [Lb Zb]]]].
  set (x := mval a * 2 ^ expo a). set (y := mval b * 2 ^ expo b).
  rewrite (bit_width_mantissa a Ha Ea), (bit_width_mantissa b Hb Eb). fold x y.
  destruct (N.eqb_spec (N.size x) (N.size y)) as [Es|Ens]; simpl negb; cbv iota.
  2:{ f_equal. destruct (N.compare_spec (N.size x) (N.size y)) as [|Hlt|Hgt]; [contradiction| |].
      - symmetry. apply N.compare_lt_iff. apply size_lt_lt. exact Hlt.
      - symmetry. apply N.compare_gt_iff. apply size_lt_lt. exact Hgt. }
  destruct (N.eqb_spec (N.size x) 0) as [E0|N0].
  { f_equal. symmetry. apply N.compare_eq_iff.
    apply (proj1 (size_0_iff x)) in E0. rewrite E0 in Es. symmetry in Es.
    apply (proj1 (size_0_iff y)) in Es. congruence. }
  f_equal.
  assert (Hx : x <> 0) by (rewrite <- size_0_iff; exact N0).
  assert (Hy : y <> 0) by (rewrite <- size_0_iff; congruence).
  assert (Hma : mval a <> 0) by (intros Hz; unfold x in Hx; rewrite Hz in Hx; lia).
  assert (Hmb : mval b <> 0) by (intros Hz; unfold y in Hy; rewrite Hz in Hy; lia).
  pose proof (inv_odd a Ha Hma) as Oa. pose proof (inv_odd b Hb Hmb) as Ob.
  rewrite <- Va in Oa. rewrite <- Vb in Ob.
  destruct (left_aligned_spec (mantissa a) Ra Na (La Hma) Oa) as [RA [LA [NA VA]]].
  destruct (left_aligned_spec (mantissa b) Rb Nb (Lb Hmb) Ob) as [RB [LB [NB VB]]].
  set (n := N.max (lenN (mantissa a)) (lenN (mantissa b))).
  assert (Hna : lenN (mantissa a) <= n) by apply N.le_max_l.
  assert (Hnb : lenN (mantissa b) <= n) by apply N.le_max_r.
  rewrite (cmp_streams_spec _ _ n RA RB NA NB) by (rewrite ?LA, ?LB; assumption).
  unfold padv. rewrite VA, VB, LA, LB, Va, Vb.
  (* both sides times 2^S are x resp. y times 2^(64 n) *)
  assert (Sx : N.size (mval a) + expo a = N.size x) by (symmetry; apply size_mul_p2; exact Hma).
  assert (Sy : N.size (mval b) + expo b = N.size x) by (rewrite Es; symmetry; apply size_mul_p2; exact Hmb).
  rewrite <- (compare_mul_r _ _ (2 ^ N.size x) (p2_pos _)).
  rewrite <- (compare_mul_r x y (2 ^ (64 * n)) (p2_pos _)).
  f_equal; apply align_scale; try assumption.
  - rewrite <- Va. apply digits_val_lt. exact Ra.
  - rewrite <- Vb. apply digits_val_lt. exact Rb.
Qed.
