(** * [Display] of a [Natural] writes the decimal digits of the denoted number
      (Num/NaturalDec.v; the conversion [fmt_dec] is proved in
      Num/NaturalTextProofs.v, [fmt_dec_spec]) *)
From Coq Require Import List NArith Bool Lia.
From OxiVerif Require Import Num.Natural Num.NatBase Num.NaturalProofs Num.NaturalTextProofs.
From OxiVerif Require Import Num.NaturalDec.
Import ListNotations.
Local Open Scope N_scope.

Lemma base_val_app : forall b l r, base_val b (l ++ r) = base_val b l * b ^ lenN r + base_val b r.
Proof. exact NaturalTextProofs.base_val_app. Qed.

(** the loop: [acc] holds the digits already produced (the low end) *)
Lemma dec_fuel_spec : forall f v acc, v < 10 ^ N.of_nat f -> is_digits 10 acc ->
  let ds := dec_digits_fuel f v acc in
  base_val 10 ds = v * 10 ^ lenN acc + base_val 10 acc /\ is_digits 10 ds /\
  (f <> O -> exists d t, ds = d :: t /\ (v <> 0 -> d <> 0) /\ (v = 0 -> ds = 0 :: acc)).
Proof.
  induction f as [|f IH]; intros v acc Hv Hacc; cbv zeta.
  - change (10 ^ N.of_nat 0) with 1 in Hv. assert (v = 0) by lia. subst v. simpl.
    split; [lia|]. split; [exact Hacc | intros C; contradiction].
  - simpl dec_digits_fuel. destruct (N.ltb_spec v 10) as [Hs|Hb].
    + split; [|split].
      * rewrite base_val_cons. reflexivity.
      * constructor; assumption.
      * intros _. exists v, acc. split; [reflexivity|]. split; [auto | intros ->; reflexivity].
    + assert (Hq : v / 10 < 10 ^ N.of_nat f).
      { rewrite Nat2N.inj_succ, N.pow_succ_r' in Hv. apply N.div_lt_upper_bound; lia. }
      assert (Hm : v mod 10 < 10) by (apply N.mod_lt; lia).
      assert (Hacc' : is_digits 10 (v mod 10 :: acc)) by (constructor; assumption).
      destruct (IH (v / 10) (v mod 10 :: acc) Hq Hacc') as [V [D X]].
      split; [|split].
      * rewrite V, base_val_cons, lenN_cons, N.pow_add_r, N.pow_1_r.
        pose proof (N.div_mod v 10 ltac:(lia)) as E. set (P := 10 ^ lenN acc) in *.
        set (q := v / 10) in *. set (r := v mod 10) in *. rewrite E. lia.
      * exact D.
      * intros _. assert (Hq0 : v / 10 <> 0).
        { intros C. apply N.div_small_iff in C; lia. }
        destruct f as [|f'].
        { exfalso. change (10 ^ N.of_nat 0) with 1 in Hq. lia. }
        destruct (X ltac:(discriminate)) as [d [t [E [Hd _]]]].
        exists d, t. split; [exact E|]. split; [intros _; apply Hd; exact Hq0 | intros ->; lia].
Qed.

Lemma lt_pow10_size : forall v, v < 10 ^ N.of_nat (S (N.to_nat (N.size v))).
Proof.
  intros v. rewrite Nat2N.inj_succ, N2Nat.id, N.pow_succ_r'.
  pose proof (N.size_gt v) as H.
  assert (2 ^ N.size v <= 10 ^ N.size v) by (apply N.pow_le_mono_l; lia).
  pose proof (p2_pos (N.size v)). lia.
Qed.

(** the decimal digits of [v]: their value is [v], every digit is below 10,
    no leading zero ([[0]] for 0) *)
Theorem dec_digits_spec : forall v,
  base_val 10 (dec_digits v) = v /\ is_digits 10 (dec_digits v) /\
  (v = 0 -> dec_digits v = [0]) /\ (v <> 0 -> hd 0 (dec_digits v) <> 0).
Proof.
  intros v. unfold dec_digits.
  destruct (dec_fuel_spec (S (N.to_nat (N.size v))) v [] (lt_pow10_size v) ltac:(constructor)) as [V [D X]].
  destruct (X ltac:(discriminate)) as [d [t [E [Hd Hz]]]].
  split; [|split; [exact D|split]].
  - rewrite V, lenN_nil, N.pow_0_r, base_val_nil. lia.
  - exact Hz.
  - intros Hnz. rewrite E. simpl. apply Hd. exact Hnz.
Qed.

(** [Display]: [?] (modelled as [None]) for NaN and for exponents above
    [2^40] (the limit in [TryFrom<&Natural> for UBig]); otherwise the decimal
    digits of the denoted number *)
Theorem fmt_dec_digits_spec : forall a, Inv a ->
  match val a with
  | None => fmt_dec_digits a = None
  | Some v =>
    if expo a <=? 2 ^ 40 then
      exists ds, fmt_dec_digits a = Some ds /\ base_val 10 ds = v /\ is_digits 10 ds /\
        (v = 0 -> ds = [0]) /\ (v <> 0 -> hd 0 ds <> 0)
    else fmt_dec_digits a = None
  end.
Proof.
  intros a H. unfold fmt_dec_digits. rewrite (fmt_dec_spec a H).
  destruct (val a) as [v|]; [|reflexivity].
  destruct (expo a <=? 2 ^ 40); [|reflexivity].
  exists (dec_digits v). split; [reflexivity|]. apply dec_digits_spec.
Qed.

Example ex_fmt_dec_digits :
  fmt_dec_digits (from_u64 1200) = Some [1; 2; 0; 0] /\ fmt_dec_digits (from_u64 0) = Some [0] /\
  fmt_dec_digits (mkNat [3] U64MAX) = None /\ fmt_dec_digits (mkNat [1] (2 ^ 40 + 1)) = None /\
  fmt_dec_digits (from_u128 (2 ^ 64)) = Some [1; 8; 4; 4; 6; 7; 4; 4; 0; 7; 3; 7; 0; 9; 5; 5; 1; 6; 1; 6] /\
  fmt_dec_digits (mkNat [3] 5) = Some [9; 6].
Proof. vm_compute. repeat split; reflexivity. Qed.

(** the examples of the text theorems in one statement (coq/Props/C12.v) *)
Example ex_text :
  (fmt_oct (from_u64 10) = Some [1; 2] /\ fmt_hex (from_u64 0) = Some [0] /\
   fmt_oct (mkNat [3] U64MAX) = None /\ fmt_hex (mkNat [3] U64MAX) = None /\
   fmt_hex (mkNat [3] 5) = Some [6; 0] /\ fmt_oct (mkNat [5] 7) = Some [1; 2; 0; 0]) /\
  (fmt_dec_digits (from_u64 1200) = Some [1; 2; 0; 0] /\ fmt_dec_digits (from_u64 0) = Some [0] /\
   fmt_dec_digits (mkNat [3] U64MAX) = None /\ fmt_dec_digits (mkNat [1] (2 ^ 40 + 1)) = None /\
   fmt_dec_digits (mkNat [3] 5) = Some [9; 6]) /\
  (Inv (mkNat [1; 1; 1] 2) /\ val (mkNat [1; 1; 1] 2) = Some ((1 + 2 ^ 64 + 2 ^ 128) * 4)).
Proof.
  refine (conj _ (conj _ ex_inv_three_digits)).
  - destruct ex_fmt_pow2 as (A & B & C & D & _ & _ & E & F & _). repeat split; assumption.
  - destruct ex_fmt_dec_digits as (A & B & C & D & _ & E). repeat split; assumption.
Qed.
