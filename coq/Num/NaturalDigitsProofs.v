(** * [Natural::from_le_digits] (Num/Natural.v, [from_le_digits])

    [from_le_digits_spec]: for every list of u64 digits the result satisfies
    the invariant and denotes the number given by the digits -- or NaN when
    the number of trailing zero bits is not below [u64::MAX] (only possible
    for lists of more than 2^57 digits). *)

From Coq Require Import List NArith Bool Lia Arith.
From OxiVerif Require Import Num.Natural Num.NatBase Num.NaturalProofs Num.NaturalAddProofs.
Import ListNotations.
Local Open Scope N_scope.

(** the saturating exponent computations *)
Lemma sat_exp_1 : forall t cnt, sat_add64 t (sat_mul64 cnt 64) = N.min (t + 64 * cnt) U64MAX.
Proof. intros. unfold sat_add64, sat_mul64. lia. Qed.

Lemma sat_exp_2 : forall t cnt, sat_add64 (sat_mul64 cnt 64) t = N.min (t + 64 * cnt) U64MAX.
Proof. intros. unfold sat_add64, sat_mul64. lia. Qed.

Lemma last_app_ne : forall (l r : list N) d, r <> [] -> last (l ++ r) d = last r d.
Proof.
  induction l as [|a l IH]; intros r d Hr; [reflexivity|].
  simpl app. destruct (l ++ r) eqn:E.
  - destruct l; simpl in E; [contradiction | discriminate].
  - rewrite <- E. simpl. rewrite E. rewrite <- E. apply IH. exact Hr.
Qed.

Lemma rotr_merge : forall lo hi t, t <> 0 -> t < 64 -> lo < 2 ^ 64 -> hi < 2 ^ t ->
  N.lor (rotr64 hi t) (shr64 lo t) = (lo + 2 ^ 64 * hi) / 2 ^ t.
Proof.
  intros lo hi t Ht0 Ht Hlo Hhi. unfold rotr64. destruct (N.eqb_spec t 0); [contradiction|].
  rewrite !shr64_eq, shl64_eq by lia. replace (64 - (64 - t)) with t by lia.
  rewrite (N.div_small hi (2 ^ t) Hhi), N.lor_0_l, (N.mod_small hi (2 ^ t) Hhi).
  assert (Hlq : lo / 2 ^ t < 2 ^ (64 - t)).
  { apply div_p2_lt. replace (t + (64 - t)) with 64 by lia. exact Hlo. }
  rewrite (lor_disjoint _ _ _ Hlq).
  replace (2 ^ 64) with (2 ^ (64 - t) * 2 ^ t) by (rewrite <- p2_add; f_equal; lia).
  replace (lo + 2 ^ (64 - t) * 2 ^ t * hi) with (lo + (hi * 2 ^ (64 - t)) * 2 ^ t) by lia.
  rewrite N.div_add by apply p2_nz. lia.
Qed.

Theorem from_le_digits_spec : forall ds, inr ds ->
  Inv (from_le_digits ds) /\ val (from_le_digits ds) = norm (digits_val ds).
Proof.
  intros ds Hr. unfold from_le_digits.
  pose proof (strip_msd_val ds) as V1. pose proof (strip_msd_inr ds Hr) as R1.
  pose proof (strip_msd_last ds) as L1. set (ds1 := strip_msd_zeros ds) in *.
  destruct (strip_lsd_zeros ds1) as [cnt [|lsd rest]] eqn:Est.
  { rewrite <- V1, (strip_lsd_val ds1 cnt [] Est), N.mul_0_r.
    split; [exact Inv_ZERO | reflexivity]. }
  destruct (odd_part_digits ds1 cnt lsd rest R1 Est) as (Hhd & R2 & Ht & OM & EV). rewrite V1 in EV.
  destruct (strip_lsd_spec ds1 cnt _ Est) as [E1 _].
  set (t := ctz lsd) in *. set (ds2 := lsd :: rest) in *. set (M := digits_val ds2 / 2 ^ t) in *.
  (* whatever the shape of the result: its value *)
  assert (Hval : forall m, digits_val m = M -> val (mkNat m (N.min (t + 64 * cnt) U64MAX)) = norm (digits_val ds)).
  { intros m Vm. apply (val_sat_exp m M); assumption. }
  (* the last digit of ds2 is not zero *)
  assert (Hlast : last ds2 0 <> 0).
  { destruct L1 as [L1|L1].
    - rewrite L1 in E1. destruct (repeat 0 (N.to_nat cnt)); discriminate.
    - rewrite E1 in L1. rewrite last_app_ne in L1 by discriminate. exact L1. }
  clear V1 L1 E1 Est EV R1. clearbody ds1.
  destruct rest as [|d1 rest'].
  - (* one digit *)
    rewrite sat_exp_1, shr64_eq. fold t.
    assert (EM : M = lsd / 2 ^ t) by (unfold M, ds2; rewrite digits_val_single; reflexivity).
    rewrite <- EM. split; [|apply Hval; apply digits_val_single].
    apply Inv_single; [|lia | exact OM].
    rewrite EM. eapply N.le_lt_trans; [apply div_p2_le | apply (inr_inv _ _ R2)].
  - (* several digits *)
    assert (N2 : ds2 <> []) by discriminate.
    set (msd := last ds2 0) in *.
    assert (Rmsd : msd < B64) by (apply inr_last; exact R2).
    set (L := lenN ds2). assert (HL : 2 <= L) by (unfold L, ds2; rewrite !lenN_cons; lia).
    pose proof (size_digits ds2 N2 R2 Hlast) as Sz. fold L msd in Sz.
    set (sm := N.size msd) in *.
    assert (Hsm : 1 <= sm <= 64) by (split; [apply size_pos; exact Hlast | apply size_lt_B64; exact Rmsd]).
    destruct (N.eqb_spec t 0) as [Et|Et].
    + (* the digits are used as they are *)
      assert (EM : digits_val ds2 = M) by (unfold M; rewrite Et; symmetry; apply N.div_1_r).
      replace (sat_mul64 cnt 64) with (N.min (t + 64 * cnt) U64MAX) by (unfold sat_mul64; lia).
      split; [|apply Hval; exact EM].
      apply mk_Inv; [exact R2 | exact N2 | lia | rewrite EM; exact OM|].
      right. apply big_of_ge; [exact HL | apply digits_val_ge_p2; assumption].
    + rewrite sat_exp_2. rewrite lz64_eq. fold sm.
      assert (SM : N.size M = 64 * (L - 1) + sm - t) by (unfold M; rewrite size_div_p2, Sz; reflexivity).
      set (q := (t + (64 - sm)) / 64).
      assert (Hq : (t < sm /\ q = 0) \/ (sm <= t /\ q = 1)).
      { unfold q. destruct (N.lt_ge_cases t sm) as [Hlt|Hge].
        - left. split; [exact Hlt|]. apply N.div_small. lia.
        - right. split; [exact Hge|].
          assert (Hq1 : (t + (64 - sm)) / 64 < 2) by (apply N.div_lt_upper_bound; lia).
          assert (Hq2 : 1 <= (t + (64 - sm)) / 64) by (apply N.div_le_lower_bound; lia). lia. }
      assert (Elen : N.of_nat (length ds2 - N.to_nat q) = L - q).
      { rewrite Nat2N.inj_sub, N2Nat.id. reflexivity. }
      destruct (shr_digits_spec t ds2 Ht R2) as [Vsh Rsh]. fold M in Vsh.
      clearbody q. clear Sz Hlast.
      destruct (Nat.eqb_spec (length ds2 - N.to_nat q) 1) as [E1len|N1len].
      * (* one digit: two input digits, the upper one moves into the lower *)
        rewrite E1len in Elen. change (N.of_nat 1) with 1 in Elen.
        assert (HL2 : L = 2) by (destruct Hq as [[? ?]|[? ?]]; lia).
        assert (Hst : sm <= t) by (destruct Hq as [[? ?]|[? ?]]; lia).
        assert (Er : rest' = []).
        { unfold L, ds2 in HL2. rewrite !lenN_cons in HL2. destruct rest'; [reflexivity|]. rewrite lenN_cons in HL2. lia. }
        subst rest'. assert (Emsd : msd = d1) by reflexivity.
        assert (Hmsd : msd < 2 ^ t).
        { eapply N.lt_le_trans; [apply N.size_gt | apply p2_le; exact Hst]. }
        assert (ED : N.lor (rotr64 msd t) (shr64 lsd t) = M).
        { rewrite (rotr_merge lsd msd t); [|exact Et | exact Ht | apply (inr_inv _ _ R2) | exact Hmsd].
          unfold M, ds2. rewrite digits_val_cons, digits_val_single, <- Emsd, B64_eq. reflexivity. }
        rewrite ED. split; [|apply Hval; apply digits_val_single].
        apply Inv_single; [|lia | exact OM].
        rewrite B64_eq. apply size_le_iff. lia.
      * set (len := (length ds2 - N.to_nat q)%nat) in *.
        destruct (fit_Inv_len (shr_digits t ds2) (N.min (t + 64 * cnt) U64MAX) len Rsh ltac:(lia)) as [HI HV];
          rewrite ?Vsh; try exact OM.
        -- rewrite B64_eq. apply size_gt_iff. destruct Hq as [[? ->]|[? ->]]; lia.
        -- destruct Hq as [[? ->]|[? ->]]; lia.
        -- destruct Hq as [[? ->]|[? ->]]; lia.
        -- split; [exact HI|]. apply Hval. rewrite HV. exact Vsh.
Qed.
