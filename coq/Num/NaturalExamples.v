(** * A decision procedure for the invariant of [Natural] and concrete instances
      of the theorems (non-vacuity: the hypotheses hold for non-trivial values
      of every shape, and the error value arises exactly where documented) *)

From Coq Require Import List NArith Bool Lia Arith.
From OxiVerif Require Import Num.Natural Num.NatBase Num.NaturalProofs Num.NaturalAddProofs
  Num.NaturalCmpProofs Num.NaturalDigitsProofs.
Import ListNotations.
Local Open Scope N_scope.

(** [Inv] as a boolean *)
Definition inv_b (n : natural) : bool :=
  forallb (fun d => d <? B64) (digits n) &&
  negb (match digits n with [] => true | _ => false end) &&
  (expo n <=? U64MAX) &&
  (if mval n =? 0 then (expo n =? 0) || (expo n =? U64MAX) else N.odd (mval n)) &&
  (if Nat.leb 2 (length (digits n))
   then (B64 <=? mval n) && (2 ^ (64 * lenN (digits n) - 65) <=? mval n) else true).

Theorem inv_b_spec : forall n, inv_b n = true <-> Inv n.
Proof.
  intros n. unfold inv_b. split.
  - intros H. repeat (apply andb_prop in H; destruct H as [H ?]).
    rename H into H1, H3 into H2, H2 into H3, H1 into H4, H0 into H5.
    constructor.
    + apply Forall_forall. intros d Hd. rewrite forallb_forall in H1. apply N.ltb_lt. apply H1. exact Hd.
    + intros Hc. rewrite Hc in H2. discriminate.
    + apply N.leb_le. exact H3.
    + intros Hz. rewrite Hz in H4. simpl in H4. apply orb_prop in H4.
      destruct H4 as [E|E]; apply N.eqb_eq in E; auto.
    + intros Hnz. destruct (N.eqb_spec (mval n) 0); [contradiction | exact H4].
    + intros Hl. destruct (Nat.leb_spec 2 (length (digits n))); [|lia].
      apply andb_prop in H5. destruct H5 as [A B]. apply N.leb_le in A. apply N.leb_le in B. split; assumption.
  - intros H. repeat (apply andb_true_intro; split).
    + apply forallb_forall. intros d Hd. apply N.ltb_lt.
      pose proof (inv_inr n H) as Hr. unfold inr in Hr. rewrite Forall_forall in Hr. apply Hr. exact Hd.
    + pose proof (inv_ne n H). destruct (digits n); [contradiction | reflexivity].
    + apply N.leb_le. apply (inv_exp n H).
    + destruct (N.eqb_spec (mval n) 0) as [Hz|Hnz].
      * destruct (inv_zero n H Hz) as [E|E]; rewrite E; reflexivity.
      * apply (inv_odd n H Hnz).
    + destruct (Nat.leb_spec 2 (length (digits n))) as [Hl|]; [|reflexivity].
      destruct (inv_big n H Hl) as [A B]. apply andb_true_intro. split; apply N.leb_le; assumption.
Qed.

(** ** Values of every shape satisfy the invariant *)

(** a heap mantissa with a zero most significant digit; an inline value with
    a large exponent; NaN with a non-zero mantissa (as left by an overflowing shift) *)
Definition ex_heap : natural := mkNat [1; 2 ^ 63; 0] 5.
Definition ex_inline : natural := mkNat [12345677] (2 ^ 40).
Definition ex_nan3 : natural := mkNat [3] U64MAX.

Example ex_inv : Inv ex_heap /\ Inv ex_inline /\ Inv ex_nan3 /\
  val ex_heap = Some ((1 + 2 ^ 127) * 32) /\ bit_width ex_heap = 133 /\
  val ex_nan3 = None /\ check_inv ex_heap = true.
Proof.
  split; [apply inv_b_spec; vm_compute; reflexivity|].
  split; [apply inv_b_spec; vm_compute; reflexivity|].
  split; [apply inv_b_spec; vm_compute; reflexivity|].
  vm_compute. repeat split; reflexivity.
Qed.

(** ** Addition *)

(** a carry across the digit boundary followed by stripping a whole zero digit:
    (2^64 - 1) + 1 = 1 * 2^64; the sum of two two-digit numbers whose low bits
    cancel; different exponents *)
Example ex_add :
  nat_add (from_u64 (2 ^ 64 - 1)) (from_u64 1) = mkNat [1] 64 /\
  val (nat_add (from_u128 (2 ^ 100 + 1)) (from_u128 (2 ^ 100 - 1))) = Some (2 ^ 101) /\
  nat_add (from_u128 (2 ^ 100 + 1)) (from_u128 (2 ^ 100 - 1)) = mkNat [1] 101 /\
  val (nat_add (nat_shl (from_u64 3) 200) (from_u64 5)) = Some (3 * 2 ^ 200 + 5) /\
  Inv (nat_add (nat_shl (from_u64 3) 200) (from_u64 5)).
Proof.
  split; [vm_compute; reflexivity|]. split; [vm_compute; reflexivity|]. split; [vm_compute; reflexivity|].
  split; [vm_compute; reflexivity|]. apply inv_b_spec. vm_compute. reflexivity.
Qed.

(** the error value arises from numbers only through exponent overflow:
    2^(u64::MAX - 1) + 2^(u64::MAX - 1) = 2^(u64::MAX) *)
Lemma pow2_nat : forall e, e < U64MAX ->
  Inv (nat_shl (from_u64 1) e) /\ val (nat_shl (from_u64 1) e) = Some (2 ^ e).
Proof.
  intros e He. destruct (from_u64_spec 1 ltac:(reflexivity)) as [I1 V1].
  destruct (nat_shl_spec (from_u64 1) e I1 ltac:(lia)) as [I2 V2].
  split; [exact I2|]. rewrite V2, V1, (norm_odd 1 e eq_refl He), N.mul_1_l. reflexivity.
Qed.

Lemma add_overflow_gen : forall e, 1 <= e -> e + 1 = U64MAX ->
  let x := nat_shl (from_u64 1) e in
  Inv x /\ val x = Some (2 ^ e) /\ val (nat_add x x) = None /\
  val (nat_add x (from_u64 1)) = Some (2 ^ e + 1).
Proof.
  intros e He1 He. cbv zeta. destruct (pow2_nat e ltac:(lia)) as [Ix Vx].
  split; [exact Ix|]. split; [exact Vx|].
  destruct (from_u64_spec 1 ltac:(reflexivity)) as [I1 V1].
  split.
  - destruct (nat_add_spec _ _ Ix Ix) as [_ Va]. rewrite Va, Vx.
    assert (E2 : 2 ^ e + 2 ^ e = 1 * 2 ^ U64MAX) by (rewrite <- He, p2_succ; lia).
    rewrite E2. apply norm_big_ctz; [discriminate | reflexivity].
  - destruct (nat_add_spec _ _ Ix I1) as [_ Va]. rewrite Va, Vx, V1.
    rewrite <- (N.mul_1_r (2 ^ e + 1)). apply (norm_odd _ 0); [|reflexivity].
    rewrite N.odd_add, N.odd_pow by lia. reflexivity.
Qed.

Example ex_add_overflow :
  let x := nat_shl (from_u64 1) (U64MAX - 1) in
  Inv x /\ val x = Some (2 ^ (U64MAX - 1)) /\ val (nat_add x x) = None /\
  val (nat_add x (from_u64 1)) = Some (2 ^ (U64MAX - 1) + 1).
Proof. exact (add_overflow_gen (U64MAX - 1) ltac:(unfold U64MAX; lia) eq_refl). Qed.

(** ** Shifts *)
Lemma shl_big_gen : forall e, e + 1 = U64MAX ->
  val (nat_shl (from_u64 5) e) = Some (5 * 2 ^ e) /\ val (nat_shl (from_u64 6) e) = None.
Proof.
  intros e He. split.
  - destruct (from_u64_spec 5 ltac:(reflexivity)) as [I V].
    destruct (nat_shl_spec (from_u64 5) e I ltac:(lia)) as [_ E]. rewrite E, V.
    apply norm_odd; [reflexivity | lia].
  - destruct (from_u64_spec 6 ltac:(reflexivity)) as [I V].
    destruct (nat_shl_spec (from_u64 6) e I ltac:(lia)) as [_ E]. rewrite E, V.
    assert (E6 : 6 * 2 ^ e = 3 * 2 ^ U64MAX) by (rewrite <- He, p2_succ; lia).
    rewrite E6. apply norm_big_ctz; [discriminate | reflexivity].
Qed.

Example ex_shifts :
  val (nat_shr (from_u64 12) 2) = Some 3 /\ val (nat_shr (from_u64 12) 3) = None /\
  val (nat_shr (from_u64 0) 7) = Some 0 /\
  val (nat_shl (from_u64 5) (U64MAX - 1)) = Some (5 * 2 ^ (U64MAX - 1)) /\
  val (nat_shl (from_u64 6) (U64MAX - 1)) = None /\ val (nat_shl (from_u64 0) U64MAX) = Some 0.
Proof.
  split; [vm_compute; reflexivity|]. split; [vm_compute; reflexivity|]. split; [vm_compute; reflexivity|].
  destruct (shl_big_gen (U64MAX - 1) eq_refl) as [A B].
  split; [exact A|]. split; [exact B|]. vm_compute. reflexivity.
Qed.

(** ** Comparison, equality, conversions *)
Example ex_cmp :
  partial_cmp (from_u128 (2 ^ 100 + 1)) (nat_shl (from_u64 1) 100) = Some Gt /\
  partial_cmp (from_u64 7) (nat_shl (from_u64 1) 3) = Some Lt /\
  partial_cmp ex_heap ex_heap = Some Eq /\
  partial_cmp ex_nan3 (from_u64 1) = None /\
  nat_eqb (mkNat [1; 2 ^ 63; 0] 5) (mkNat [1; 2 ^ 63] 5) = true /\
  nat_eqb ex_nan3 NAN = true /\ nat_eqb (from_u64 4) (from_u64 2) = false /\
  try_into_u64 (from_u128 (2 ^ 64)) = None /\ try_into_u64 (nat_shl (from_u64 3) 62) = Some (3 * 2 ^ 62) /\
  try_into_u128 (from_u64 4) = Some 4 /\
  from_le_digits [0; 0; 12; 0] = mkNat [3] 130.
Proof. vm_compute. repeat split; reflexivity. Qed.
