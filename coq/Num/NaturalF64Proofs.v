(** * [impl From<&Natural> for f64] is the correctly rounded conversion
      (Num/Natural.v, [to_f64_bits]; /repo/crates/oxidd-core/src/util/num/bigint.rs,
      [impl From<&Natural> for f64], lines 975-1026)

    [to_f64_bits a] is the bit pattern ([f64::to_bits]) of the float the Rust
    code assembles from the two most significant digits of the mantissa, the
    digit count and the exponent.  Proved here, for every value satisfying the
    representation invariant [Inv]:

    - [to_f64_bits_spec]: NaN gives [f64::NAN]; a number [v] gives exactly the
      bit pattern of Flocq's [binary_normalize] of the integer [v] in binary64
      with rounding to nearest, ties to even ([f64_of_N]), i.e. the correctly
      rounded value, +infinity on overflow;
    - the same in terms of real numbers ([to_f64_round], [to_f64_overflow],
      [to_f64_exact_gen], [to_f64_exact], [to_f64_nan]).

    Part 1 is pure integer arithmetic (no Flocq, closed under the global
    context): the code's [frac_trunc_msb] are the 64 bits following the leading one of the mantissa
    ([topbits_digits]), the code's [frac_rounded] is the 53 bit significand
    rounded to nearest even minus the hidden bit ([frac_model_spec], [rnd53]),
    and the saturating bit width computation either is exact or both it and
    the exact bit width exceed 1024 ([bw_model_spec]; the digit count is not
    bounded by [Inv], so the saturation of [len * 64] is not excluded but
    shown to be harmless).  Part 2 identifies [rnd53] with Flocq's rounding
    ([round_val]) and the assembled bit pattern with the float
    ([model_float], [f64_of_N_bits]).

    Assumptions: only the classical axioms of Coq's real numbers that Flocq's
    theorems rest on ([ClassicalDedekindReals.sig_forall_dec], [sig_not_dec],
    [FunctionalExtensionality.functional_extensionality_dep],
    [Classical_Prop.classic]); Part 1 ([to_f64_bits_int]) is axiom free. *)

From Coq Require Import List NArith ZArith Bool Lia Reals Lra.
From Flocq Require Import Core.Core IEEE754.BinarySingleNaN IEEE754.Binary IEEE754.Bits.
From OxiVerif Require Import Num.F64Count Num.F64CountProofs Num.Natural Num.NatBase Num.NaturalProofs Num.NaturalCmpProofs.
Import ListNotations.

Arguments N.land : simpl never.

Local Open Scope N_scope.

(** ** Part 1: integers *)

(** the [w] most significant bits of [m] (a number in [2^(w-1), 2^w) for [m <> 0]) *)
Definition topbits (m w : N) : N := (m * 2 ^ w) / 2 ^ N.size m.

Lemma topbits_small : forall m w, N.size m <= w -> topbits m w = m * 2 ^ (w - N.size m).
Proof.
  intros m w H. unfold topbits. rewrite (p2_split w (N.size m) H).
  replace (m * (2 ^ N.size m * 2 ^ (w - N.size m))) with (m * 2 ^ (w - N.size m) * 2 ^ N.size m) by lia.
  apply N.div_mul. apply p2_nz.
Qed.

Lemma topbits_big : forall m w, w <= N.size m -> topbits m w = m / 2 ^ (N.size m - w).
Proof.
  intros m w H. unfold topbits. rewrite (p2_split (N.size m) w H).
  rewrite (N.mul_comm (2 ^ w)). apply N.div_mul_cancel_r; apply p2_nz.
Qed.

Lemma topbits_div : forall m w j, j <= w -> topbits m w / 2 ^ j = topbits m (w - j).
Proof.
  intros m w j H. unfold topbits. rewrite N.div_div by apply p2_nz.
  rewrite (p2_split w j H).
  replace (m * (2 ^ j * 2 ^ (w - j))) with (m * 2 ^ (w - j) * 2 ^ j) by lia.
  apply N.div_mul_cancel_r; apply p2_nz.
Qed.

Lemma topbits_range : forall m w, m <> 0 -> 1 <= w -> 2 ^ (w - 1) <= topbits m w < 2 ^ w.
Proof.
  intros m w Hm Hw. unfold topbits.
  pose proof (size_lo m Hm) as Hlo. pose proof (N.size_gt m) as Hhi.
  pose proof (size_pos m Hm) as Hs.
  split.
  - apply N.div_le_lower_bound; [apply p2_nz|].
    replace (2 ^ N.size m * 2 ^ (w - 1)) with (2 ^ (N.size m - 1) * 2 ^ w).
    + apply N.mul_le_mono_r. exact Hlo.
    + rewrite <- !p2_add. f_equal. lia.
  - apply N.div_lt_upper_bound; [apply p2_nz|].
    apply N.mul_lt_mono_pos_r; [apply p2_pos | exact Hhi].
Qed.

(** the significand rounded to 53 bits, to nearest, ties to even *)
Definition rnd53 (m : N) : N :=
  let n := N.size m in
  if n <=? 53 then m * 2 ^ (53 - n)
  else
    let k := n - 53 in
    let q := m / 2 ^ k in
    let r := m mod 2 ^ k in
    q + (if (2 ^ k <? 2 * r) || ((2 * r =? 2 ^ k) && N.odd q) then 1 else 0).

Lemma land1 : forall x, N.land x 1 = x mod 2.
Proof. intros x. change 1 with (N.ones 1) at 1. rewrite N.land_ones. reflexivity. Qed.

(** the fraction bits the code computes from the 64 bits [ftm] that follow the
    leading one of the mantissa *)
Definition frac_model (n ftm : N) : N :=
  let frac_trunc := shr64 ftm 12 in
  frac_trunc + (if n =? 54 then N.land frac_trunc 1 else N.land (shr64 ftm 11) 1).

Lemma rnd53_range : forall m, m <> 0 -> 2 ^ 52 <= rnd53 m <= 2 ^ 53.
Proof.
  intros m Hm. pose proof (topbits_range m 53 Hm ltac:(lia)) as [Hlo Hhi].
  change (53 - 1) with 52 in Hlo. unfold rnd53.
  destruct (N.leb_spec (N.size m) 53) as [Hn|Hn].
  - rewrite <- topbits_small by exact Hn. lia.
  - rewrite topbits_big in Hlo, Hhi by lia.
    destruct ((2 ^ (N.size m - 53) <? 2 * (m mod 2 ^ (N.size m - 53))) ||
              ((2 * (m mod 2 ^ (N.size m - 53)) =? 2 ^ (N.size m - 53)) && N.odd (m / 2 ^ (N.size m - 53)))); lia.
Qed.

(** the bit below the kept ones decides the rounding when there is no tie *)
Lemma round_bit : forall r k, 1 <= k -> r < 2 ^ k -> 2 * r <> 2 ^ k ->
  (r / 2 ^ (k - 1)) mod 2 = if 2 ^ k <? 2 * r then 1 else 0.
Proof.
  intros r k Hk Hr Hne.
  assert (Ek : 2 ^ k = 2 * 2 ^ (k - 1)) by (rewrite <- p2_succ; f_equal; lia).
  destruct (N.ltb_spec (2 ^ k) (2 * r)) as [Hup|Hdn].
  - replace (r / 2 ^ (k - 1)) with 1; [reflexivity|].
    apply (N.div_unique r (2 ^ (k - 1)) 1 (r - 2 ^ (k - 1))); lia.
  - rewrite (N.div_small r) by lia. reflexivity.
Qed.

Lemma frac_model_spec : forall m ftm, N.odd m = true ->
  topbits m 65 = 2 ^ 64 + ftm ->
  frac_model (N.size m) ftm = rnd53 m - 2 ^ 52 /\ 2 ^ 52 <= rnd53 m.
Proof.
  intros m ftm Ho HX. pose proof (odd_nz m Ho) as Hm.
  pose proof (rnd53_range m Hm) as [Rlo _]. split; [|exact Rlo].
  (* the top 53 and 54 bits *)
  assert (HQ : topbits m 53 = 2 ^ 52 + ftm / 2 ^ 12).
  { change 53 with (65 - 12). rewrite <- topbits_div by lia. rewrite HX.
    change (2 ^ 64) with (2 ^ 52 * 2 ^ 12). apply N.div_add_l. apply p2_nz. }
  assert (HQ2 : topbits m 54 = 2 ^ 53 + ftm / 2 ^ 11).
  { change 54 with (65 - 11). rewrite <- topbits_div by lia. rewrite HX.
    change (2 ^ 64) with (2 ^ 53 * 2 ^ 11). apply N.div_add_l. apply p2_nz. }
  assert (Hb2 : (ftm / 2 ^ 11) mod 2 = topbits m 54 mod 2).
  { rewrite HQ2. change (2 ^ 53) with (2 ^ 52 * 2). rewrite N.add_comm, N.mod_add by discriminate. reflexivity. }
  assert (Hb1 : (ftm / 2 ^ 12) mod 2 = topbits m 53 mod 2).
  { rewrite HQ. change (2 ^ 52) with (2 ^ 51 * 2). rewrite N.add_comm, N.mod_add by discriminate. reflexivity. }
  unfold frac_model. rewrite !shr64_eq, !land1, Hb1, Hb2.
  set (ft := ftm / 2 ^ 12) in *. clearbody ft. clear Hb1 Hb2 HQ2.
  unfold rnd53.
  destruct (N.leb_spec (N.size m) 53) as [Hn|Hn].
  - (* no rounding *)
    destruct (N.eqb_spec (N.size m) 54) as [Hc|_]; [lia|].
    rewrite (topbits_small m 54) by lia.
    replace (54 - (N.size m)) with (53 - (N.size m) + 1) by lia. rewrite p2_succ.
    replace (m * (2 * 2 ^ (53 - (N.size m)))) with (m * 2 ^ (53 - (N.size m)) * 2) by lia.
    rewrite N.mod_mul by discriminate.
    rewrite <- (topbits_small m 53) by lia. rewrite HQ. lia.
  - set (k := (N.size m) - 53). set (q := m / 2 ^ k). set (r := m mod 2 ^ k).
    assert (Eq53 : topbits m 53 = q) by (rewrite topbits_big by lia; reflexivity).
    assert (Hq : ft = q - 2 ^ 52) by lia.
    pose proof (N.mod_lt m (2 ^ k) (p2_nz k)) as Hr. fold r in Hr.
    assert (Hmo : m mod 2 = 1) by (apply odd_mod2; exact Ho).
    destruct (N.eqb_spec (N.size m) 54) as [Hc|Hc].
    + (* a tie *)
      assert (Ek : k = 1) by (unfold k; lia). rewrite Eq53.
      assert (Er : r = 1) by (unfold r; rewrite Ek; exact Hmo).
      rewrite Er, Ek. change (2 ^ 1 <? 2 * 1) with false. change (2 * 1 =? 2 ^ 1) with true.
      simpl orb. simpl andb. rewrite odd_b2n. clear - HQ Eq53. clearbody q. generalize (q mod 2). intros b. lia.
    + assert (Hk : 2 <= k) by (unfold k; lia).
      assert (E54 : topbits m 54 = m / 2 ^ (k - 1)).
      { rewrite topbits_big by lia. f_equal. f_equal. unfold k. lia. }
      (* r is odd like m, hence not half of 2^k *)
      assert (Hro : r mod 2 = 1).
      { unfold r. change ((m mod 2 ^ k) mod 2) with ((m mod 2 ^ k) mod 2 ^ 1). rewrite mod_p2_mod by lia. exact Hmo. }
      assert (Hne : 2 * r <> 2 ^ k).
      { intros Hc'. rewrite (p2_split k 2 Hk) in Hc'. assert (Er : r = 2 ^ (k - 2) * 2) by (change (2 ^ 2) with 4 in Hc'; lia).
        rewrite Er, N.mod_mul in Hro by discriminate. discriminate. }
      rewrite E54.
      replace ((m / 2 ^ (k - 1)) mod 2) with ((r / 2 ^ (k - 1)) mod 2)
        by (unfold r; rewrite <- !N.testbit_spec', N.mod_pow2_bits_low by lia; reflexivity).
      rewrite (round_bit r k) by (assumption || lia).
      destruct (N.eqb_spec (2 * r) (2 ^ k)) as [Hc'|_]; [contradiction|]. simpl andb. rewrite orb_false_r.
      clear - Hq HQ Eq53. destruct (2 ^ k <? 2 * r); lia.
Qed.

(** the 64 bits after the leading one, from the two most significant digits *)
Definition ftm_model (msd msd2 : N) : N :=
  if msd =? 1 then msd2
  else N.lor (shl64 msd (lz64 msd + 1)) (shr64 msd2 (64 - (lz64 msd + 1))).

Lemma ftm_model_spec : forall msd msd2, msd <> 0 -> msd < B64 -> msd2 < B64 ->
  (msd2 + B64 * msd) / 2 ^ (N.size msd - 1) = 2 ^ 64 + ftm_model msd msd2.
Proof.
  intros msd msd2 Hnz Hd Hd2.
  pose proof (size_lo msd Hnz) as Hlo. pose proof (N.size_gt msd) as Hhi.
  pose proof (size_lt_B64 msd Hd) as Hs. pose proof (size_pos msd Hnz) as Hs0.
  set (s := N.size msd) in *. set (t := s - 1) in *.
  assert (Es : 2 ^ s = 2 * 2 ^ t) by (rewrite <- p2_succ; f_equal; unfold t; lia).
  assert (EB : B64 = 2 ^ (65 - s) * 2 ^ t) by (rewrite B64_eq, <- p2_add; f_equal; unfold t; lia).
  pose proof (N.div_mod msd2 (2 ^ t) (p2_nz t)) as E2.
  pose proof (N.mod_lt msd2 (2 ^ t) (p2_nz t)) as H2.
  assert (Hq2 : msd2 / 2 ^ t < 2 ^ (65 - s)).
  { apply div_p2_lt. rewrite p2_add, (N.mul_comm (2 ^ t)), <- EB. exact Hd2. }
  assert (Ediv : (msd2 + B64 * msd) / 2 ^ t = msd2 / 2 ^ t + 2 ^ (65 - s) * msd).
  { rewrite EB. replace (2 ^ (65 - s) * 2 ^ t * msd) with ((2 ^ (65 - s) * msd) * 2 ^ t) by lia.
    apply N.div_add. apply p2_nz. }
  rewrite Ediv. unfold ftm_model.
  destruct (N.eqb_spec msd 1) as [E1|N1].
  - assert (Et : t = 0) by (unfold t, s; rewrite E1; reflexivity).
    assert (Es1 : s = 1) by (unfold s; rewrite E1; reflexivity).
    rewrite Et, Es1, E1. change (2 ^ 0) with 1. rewrite N.div_1_r. change (65 - 1) with 64. lia.
  - rewrite lz64_eq. fold s. replace (64 - s + 1) with (65 - s) by lia.
    replace (64 - (65 - s)) with t by (unfold t; lia).
    rewrite shl64_eq, shr64_eq by lia. replace (64 - (65 - s)) with t by (unfold t; lia).
    rewrite lor_disjoint by exact Hq2.
    assert (Eh : msd mod 2 ^ t = msd - 2 ^ t).
    { symmetry. apply (N.mod_unique msd (2 ^ t) 1); lia. }
    rewrite Eh, N.mul_sub_distr_r.
    assert (E64 : 2 ^ t * 2 ^ (65 - s) = 2 ^ 64) by (rewrite N.mul_comm, <- EB; reflexivity).
    rewrite E64.
    assert (2 ^ 64 <= msd * 2 ^ (65 - s)) by (rewrite <- E64; apply N.mul_le_mono_r; exact Hlo).
    lia.
Qed.

Lemma ftm_model_lt : forall msd msd2, msd <> 0 -> msd < B64 -> msd2 < B64 -> ftm_model msd msd2 < 2 ^ 64.
Proof.
  intros msd msd2 Hnz Hd Hd2. pose proof (ftm_model_spec msd msd2 Hnz Hd Hd2) as E.
  pose proof (N.size_gt msd) as Hhi. pose proof (size_lt_B64 msd Hd) as Hs. pose proof (size_pos msd Hnz) as Hs0.
  set (s := N.size msd) in *.
  assert (Hlt : (msd2 + B64 * msd) / 2 ^ (s - 1) < 2 ^ 65).
  { apply div_p2_lt. replace (s - 1 + 65) with (64 + s) by lia. rewrite p2_add, <- B64_eq. nia. }
  change (2 ^ 65) with (2 ^ 64 + 2 ^ 64) in Hlt. lia.
Qed.

(** Key lemma A: the code's [frac_trunc_msb] are the 64 bits following the leading one *)
Lemma topbits_digits : forall ds, inr ds -> ds <> [] -> last ds 0 <> 0 ->
  topbits (digits_val ds) 65 = 2 ^ 64 + ftm_model (last ds 0) (last (removelast ds) 0).
Proof.
  intros ds Hr Hne Hl.
  pose proof (size_digits ds Hne Hr Hl) as Sn.
  pose proof (inr_last ds Hr) as Hd. pose proof (msd_size ds Hr) as Hs. pose proof (size_pos _ Hl) as Hs0.
  pose proof (inr_removelast ds Hr) as Hr'.
  pose proof (inr_last _ Hr') as Hd2.
  rewrite <- (ftm_model_spec _ _ Hl Hd Hd2).
  pose proof (digits_val_last ds Hne) as E.
  pose proof (lenN_removelast ds Hne) as El.
  pose proof (lenN_pos ds Hne) as Hlen1.
  set (msd := last ds 0) in *. set (s := N.size msd) in *.
  set (ds' := removelast ds) in *. clearbody ds'.
  destruct ds' as [|x l'].
  - (* one digit *)
    rewrite lenN_nil in El. assert (El1 : lenN ds = 1) by lia.
    rewrite El1 in E, Sn. change (digits_val []) with 0 in E. change (1 - 1) with 0 in E, Sn.
    rewrite N.pow_0_r in E. rewrite N.mul_0_r in Sn.
    assert (Em : digits_val ds = msd) by lia. simpl last.
    rewrite topbits_small by (rewrite Sn; lia). rewrite Sn, Em, !N.add_0_l.
    rewrite B64_eq, (p2_split 64 (s - 1)) by lia. replace (64 - (s - 1)) with (65 - s) by lia.
    replace (2 ^ (s - 1) * 2 ^ (65 - s) * msd) with (msd * 2 ^ (65 - s) * 2 ^ (s - 1)) by lia.
    symmetry. apply N.div_mul. apply p2_nz.
  - set (ds' := x :: l') in *.
    assert (Hne' : ds' <> []) by discriminate.
    pose proof (digits_val_last ds' Hne') as E'.
    pose proof (digits_val_lt _ (inr_removelast ds' Hr')) as Hlow.
    rewrite (lenN_removelast ds' Hne') in Hlow.
    assert (Hlen : 2 <= lenN ds).
    { assert (lenN ds' <> 0) by (unfold ds'; rewrite lenN_cons; lia). lia. }
    set (msd2 := last ds' 0) in *. set (low := digits_val (removelast ds')) in *.
    pose proof (B64p_pos (lenN ds' - 1)) as HP.
    set (P := B64 ^ (lenN ds' - 1)) in *.
    assert (EP : B64 ^ (lenN ds - 1) = P * B64).
    { unfold P. rewrite <- (N.pow_1_r B64) at 3. rewrite <- N.pow_add_r. f_equal. clear - El Hlen. lia. }
    assert (Em : digits_val ds = low + (msd2 + B64 * msd) * P) by (rewrite E, E', EP; lia).
    rewrite topbits_big by (rewrite Sn; lia). rewrite Sn.
    replace (64 * (lenN ds - 1) + s - 65) with (64 * (lenN ds' - 1) + (s - 1)) by (clear - El Hlen Hs0; lia).
    rewrite p2_add, <- B64_pow. fold P.
    rewrite <- N.div_div by (try apply p2_nz; lia).
    f_equal. rewrite Em, N.div_add by lia.
    rewrite (N.div_small low) by exact Hlow. reflexivity.
Qed.

(** the saturating computation of the bit width *)
Lemma bw_model_spec : forall len e lz, 1 <= len -> lz <= 63 ->
  let bwm := sat_add64 (sat_mul64 len 64) e - lz in
  let bw := 64 * len + e - lz in
  (1024 <? bwm) = (1024 <? bw) /\ (bw <= 1024 -> bwm = bw).
Proof.
  intros len e lz Hlen Hlz. unfold sat_add64, sat_mul64, U64MAX. cbv zeta.
  destruct (N.ltb_spec 1024 (64 * len + e - lz)) as [Hb|Hb].
  - split; [|lia]. apply N.ltb_lt. lia.
  - split; [|lia]. apply N.ltb_ge. lia.
Qed.

(** the body of [to_f64_bits] after the NaN test *)
Definition f64_core (m : list N) (ex : N) : N :=
  let msd := last m 0 in
  if msd =? 0 then 0
  else
    let leading_zeros := lz64 msd in
    let bw := sat_add64 (sat_mul64 (lenN m) 64) ex - leading_zeros in
    if 1024 <? bw then F64_INF_BITS
    else
      (bw + 1023 - 1) * 2 ^ 52 +
      frac_model (bw - ex) (ftm_model msd (last (removelast m) 0)).

Lemma to_f64_bits_unfold : forall a,
  to_f64_bits a = if is_nan a then F64_NAN_BITS else f64_core (mantissa a) (expo a).
Proof. reflexivity. Qed.

(** Conclusion of the integer part *)
Theorem to_f64_bits_int : forall a, Inv a -> expo a <> U64MAX ->
  let m := mval a in
  let bw := N.size m + expo a in
  to_f64_bits a =
    if m =? 0 then 0
    else if 1024 <? bw then F64_INF_BITS
    else (bw + 1022) * 2 ^ 52 + (rnd53 m - 2 ^ 52).
Proof.
  intros a H Ea. cbv zeta. rewrite to_f64_bits_unfold.
  unfold is_nan. destruct (N.eqb_spec (expo a) U64MAX) as [|_]; [contradiction|].
  destruct (mantissa_spec a H) as [Hr [Hne [Hv [Hl Hz]]]].
  unfold f64_core.
  destruct (N.eqb_spec (mval a) 0) as [Hm0|Hm].
  - rewrite (Hz Hm0). reflexivity.
  - specialize (Hl Hm). destruct (N.eqb_spec (last (mantissa a) 0) 0) as [|_]; [contradiction|].
    set (ds := mantissa a) in *. set (msd := last ds 0) in *.
    pose proof (size_digits ds Hne Hr Hl) as Sn. rewrite Hv in Sn. fold msd in Sn.
    pose proof (msd_size ds Hr) as Hs. fold msd in Hs. pose proof (size_pos msd Hl) as Hs0.
    pose proof (lenN_pos ds Hne) as Hlen.
    assert (Hlz : lz64 msd <= 63) by (rewrite lz64_eq; lia).
    destruct (bw_model_spec (lenN ds) (expo a) (lz64 msd) Hlen Hlz) as [B1 B2].
    assert (Ebw : 64 * lenN ds + expo a - lz64 msd = N.size (mval a) + expo a) by (rewrite lz64_eq, Sn; clear - Hs Hs0 Hlen; lia).
    rewrite Ebw in B1, B2. rewrite B1.
    destruct (N.ltb_spec 1024 (N.size (mval a) + expo a)) as [Hov|Hfit]; [reflexivity|].
    rewrite (B2 Hfit).
    replace (N.size (mval a) + expo a - expo a) with (N.size (mval a)) by lia.
    pose proof (topbits_digits ds Hr Hne Hl) as HX. rewrite Hv in HX. fold msd in HX.
    destruct (frac_model_spec (mval a) _ (inv_odd a H Hm) HX) as [HF _]. rewrite HF.
    f_equal. clear. lia.
Qed.

Close Scope N_scope.

(** ** Part 2: Flocq *)

(** [f64_of_N] (Num/F64Count.v): Flocq's correctly rounded (to nearest, ties to
    even) conversion of an integer to binary64,
    [binary_normalize 53 1024 _ _ mode_NE (Z.of_N v) 0 false]; overflow gives
    +infinity *)

Lemma of_to_bits : forall v, b64_of_bits (bits_of_b64 v) = v.
Proof. exact (binary_float_of_bits_of_binary_float 52 11 eq_refl eq_refl eq_refl). Qed.
Lemma to_of_bits : forall x, (0 <= x < 2 ^ 64)%Z -> bits_of_b64 (b64_of_bits x) = x.
Proof. intros x H. exact (bits_of_binary_float_of_bits 52 11 eq_refl eq_refl eq_refl x H). Qed.

Lemma IZR_N_pos : forall m : N, m <> 0%N -> (0 < IZR (Z.of_N m))%R.
Proof. intros m Hm. apply IZR_lt. lia. Qed.

(** *** rounding a quotient to the nearest integer, ties to even *)

Lemma ZnearestE_div : forall m d : Z, (0 < d)%Z ->
  ZnearestE (IZR m / IZR d) =
    match (2 * (m mod d) ?= d)%Z with
    | Lt => (m / d)%Z
    | Eq => if Z.even (m / d) then (m / d)%Z else (m / d + 1)%Z
    | Gt => (m / d + 1)%Z
    end.
Proof.
  intros m d Hd.
  pose proof (Z.div_mod m d ltac:(lia)) as Em. pose proof (Z.mod_pos_bound m d Hd) as Hr.
  set (q := (m / d)%Z) in *. set (r := (m mod d)%Z) in *.
  assert (HdR : (0 < IZR d)%R) by (apply IZR_lt; exact Hd).
  assert (Hx : (IZR m / IZR d - IZR q = IZR r / IZR d)%R).
  { rewrite Em, plus_IZR, mult_IZR. field. lra. }
  assert (Hfl : Zfloor (IZR m / IZR d) = q) by (apply Zfloor_div; lia).
  assert (Hce : (0 < r)%Z -> Zceil (IZR m / IZR d) = (q + 1)%Z).
  { intros Hr0. rewrite Zceil_floor_neq; rewrite Hfl; [reflexivity|].
    intros Hc. assert (H0 : (IZR r / IZR d = 0)%R) by (rewrite <- Hx, Hc; lra).
    assert (0 < IZR r)%R by (apply IZR_lt; exact Hr0).
    assert (0 < IZR r / IZR d)%R by (apply Rdiv_lt_0_compat; assumption). lra. }
  assert (Hy : (0 < / IZR d)%R) by (apply Rinv_0_lt_compat; exact HdR).
  assert (Hyd : (IZR d * / IZR d = 1)%R) by (apply Rinv_r; lra).
  unfold Znearest. rewrite Hfl, Hx.
  destruct (Z.compare_spec (2 * r) d) as [He|Hl|Hg].
  - rewrite Rcompare_Eq.
    + rewrite Hce by lia. destruct (Z.even q); reflexivity.
    + unfold Rdiv. assert (Ed : IZR d = (2 * IZR r)%R) by (rewrite <- He, mult_IZR; reflexivity).
      rewrite Ed in Hyd at 1. lra.
  - rewrite Rcompare_Lt; [reflexivity|]. unfold Rdiv.
    apply IZR_lt in Hl. rewrite mult_IZR in Hl. nra.
  - rewrite Rcompare_Gt; [apply Hce; lia|]. unfold Rdiv.
    apply IZR_lt in Hg. rewrite mult_IZR in Hg. nra.
Qed.

Lemma even_of_N : forall q, Z.even (Z.of_N q) = negb (N.odd q).
Proof. intros [|[p|p|]]; reflexivity. Qed.

(** [rnd53 m] is the scaled mantissa rounded to nearest even *)
Lemma rnd53_nearest : forall m, m <> 0%N ->
  ZnearestE (IZR (Z.of_N m) * bpow radix2 (53 - Z.of_N (N.size m))) = Z.of_N (rnd53 m).
Proof.
  intros m Hm. unfold rnd53. destruct (N.leb_spec (N.size m) 53) as [Hn|Hn].
  - replace (53 - Z.of_N (N.size m))%Z with (Z.of_N (53 - N.size m)) by lia.
    rewrite <- IZR_N_pow2, <- mult_IZR, <- N2Z.inj_mul. apply Zrnd_IZR. apply valid_rnd_N.
  - set (k := (N.size m - 53)%N).
    replace (53 - Z.of_N (N.size m))%Z with (- Z.of_N k)%Z by lia.
    rewrite bpow_opp, <- IZR_N_pow2. fold (Rdiv (IZR (Z.of_N m)) (IZR (Z.of_N (2 ^ k)))).
    pose proof (p2_pos k) as Hp.
    rewrite ZnearestE_div by lia.
    rewrite <- N2Z.inj_div, <- N2Z.inj_mod.
    set (q := (m / 2 ^ k)%N). set (r := (m mod 2 ^ k)%N).
    change 2%Z with (Z.of_N 2). rewrite <- N2Z.inj_mul, N2Z.inj_compare.
    destruct (N.compare_spec (2 * r) (2 ^ k)) as [He|Hl|Hg].
    + rewrite He, N.ltb_irrefl, N.eqb_refl. simpl orb. simpl andb.
      rewrite even_of_N. destruct (N.odd q); simpl negb; cbv iota; lia.
    + destruct (N.ltb_spec (2 ^ k) (2 * r)) as [|_]; [lia|].
      destruct (N.eqb_spec (2 * r) (2 ^ k)) as [|_]; [lia|]. simpl. lia.
    + destruct (N.ltb_spec (2 ^ k) (2 * r)) as [_|]; [|lia]. simpl orb. cbv iota. lia.
Qed.

(** *** the rounded value *)

Lemma mag_N : forall m, m <> 0%N -> mag radix2 (IZR (Z.of_N m)) = Z.of_N (N.size m) :> Z.
Proof.
  intros m Hm. apply mag_unique_pos.
  pose proof (size_lo m Hm) as Hlo. pose proof (N.size_gt m) as Hhi.
  pose proof (size_pos m Hm) as Hs.
  replace (Z.of_N (N.size m) - 1)%Z with (Z.of_N (N.size m - 1)) by lia.
  rewrite <- !IZR_N_pow2. split; [apply IZR_le | apply IZR_lt]; lia.
Qed.

Lemma IZR_val : forall m e, IZR (Z.of_N (m * 2 ^ e)) = (IZR (Z.of_N m) * bpow radix2 (Z.of_N e))%R.
Proof. intros m e. symmetry. apply dy_N. Qed.

Theorem round_val : forall m e, m <> 0%N ->
  rnd64 (IZR (Z.of_N (m * 2 ^ e))) =
  (IZR (Z.of_N (rnd53 m)) * bpow radix2 (Z.of_N (N.size m) + Z.of_N e - 53))%R.
Proof.
  intros m e Hm. rewrite IZR_val.
  pose proof (IZR_N_pos m Hm) as Hpos.
  pose proof (size_pos m Hm) as Hs.
  unfold round, scaled_mantissa, cexp.
  rewrite mag_mult_bpow by lra. rewrite (mag_N m Hm).
  unfold FLT_exp. rewrite Z.max_l by lia.
  unfold F2R. cbn [Fnum Fexp]. f_equal. f_equal.
  rewrite Rmult_assoc, <- bpow_plus.
  replace (Z.of_N e + - (Z.of_N (N.size m) + Z.of_N e - 53))%Z with (53 - Z.of_N (N.size m))%Z by lia.
  apply rnd53_nearest. exact Hm.
Qed.

(** *** bit patterns of normal numbers *)

Lemma bits_aux_normal : forall E f, (1 <= E <= 2046)%Z -> (0 <= f < 2 ^ 52)%Z ->
  binary_float_of_bits_aux 52 11 (E * 2 ^ 52 + f) =
  F754_finite false (Z.to_pos (2 ^ 52 + f)) (E - 1075).
Proof.
  intros E f HE Hf. unfold binary_float_of_bits_aux, split_bits.
  assert (E1 : ((E * 2 ^ 52 + f) mod 2 ^ 52 = f)%Z).
  { rewrite Z.add_comm, Z.mod_add by lia. apply Z.mod_small. exact Hf. }
  assert (E2 : (((E * 2 ^ 52 + f) / 2 ^ 52) mod 2 ^ 11 = E)%Z).
  { rewrite Z.div_add_l by lia. rewrite (Z.div_small f) by exact Hf. rewrite Z.add_0_r.
    apply Z.mod_small. lia. }
  assert (E3 : (2 ^ 52 * 2 ^ 11 <=? E * 2 ^ 52 + f)%Z = false).
  { apply Z.leb_gt. lia. }
  rewrite E1, E2, E3.
  assert (Z1 : Zeq_bool E 0 = false) by (apply Zeq_bool_false; lia).
  assert (Z2 : Zeq_bool E (2 ^ 11 - 1) = false) by (apply Zeq_bool_false; lia).
  rewrite Z1, Z2.
  destruct (f + 2 ^ 52)%Z as [|px|px] eqn:Ep; try lia.
  replace (2 ^ 52 + f)%Z with (Z.pos px) by lia.
  f_equal. unfold SpecFloat.emin. lia.
Qed.

Lemma b64_of_bits_normal : forall E f, (1 <= E <= 2046)%Z -> (0 <= f < 2 ^ 52)%Z ->
  let F := b64_of_bits (E * 2 ^ 52 + f) in
  is_finite 53 1024 F = true /\ Bsign 53 1024 F = false /\
  B2R 53 1024 F = (IZR (2 ^ 52 + f) * bpow radix2 (E - 1075))%R.
Proof.
  intros E f HE Hf F. unfold F, b64_of_bits, binary_float_of_bits.
  rewrite is_finite_FF2B, Bsign_FF2B, B2R_FF2B, (bits_aux_normal E f HE Hf).
  repeat split. unfold FF2R, F2R. cbn [Fnum Fexp SpecFloat.cond_Zopp].
  rewrite Z2Pos.id by lia. reflexivity.
Qed.

(** *** size of the rounded value *)

Lemma IZR_p52 : IZR (2 ^ 52) = bpow radix2 52.
Proof. apply (IZR_Zpower radix2 52). lia. Qed.

Lemma IZR_p53 : IZR (2 ^ 53) = bpow radix2 53.
Proof. apply (IZR_Zpower radix2 53). lia. Qed.

Lemma rnd_R_bounds : forall Zr bw : Z, (2 ^ 52 <= Zr <= 2 ^ 53)%Z ->
  let R := (IZR Zr * bpow radix2 (bw - 53))%R in
  (bpow radix2 (bw - 1) <= R)%R /\ (R <= bpow radix2 bw)%R /\
  ((Zr < 2 ^ 53)%Z -> (R < bpow radix2 bw)%R) /\ (Zr = (2 ^ 53)%Z -> R = bpow radix2 bw).
Proof.
  intros Zr bw [Hlo Hhi] R. unfold R.
  pose proof (bpow_gt_0 radix2 (bw - 53)) as Hb.
  assert (E1 : bpow radix2 (bw - 1) = (IZR (2 ^ 52) * bpow radix2 (bw - 53))%R).
  { replace (bw - 1)%Z with (52 + (bw - 53))%Z by lia. rewrite bpow_plus, IZR_p52. reflexivity. }
  assert (E2 : bpow radix2 bw = (IZR (2 ^ 53) * bpow radix2 (bw - 53))%R).
  { replace bw with (53 + (bw - 53))%Z at 1 by lia. rewrite bpow_plus, IZR_p53. reflexivity. }
  rewrite E1, E2. apply IZR_le in Hlo. pose proof (IZR_le _ _ Hhi) as Hhi'.
  repeat split.
  - apply Rmult_le_compat_r; lra.
  - apply Rmult_le_compat_r; lra.
  - intros Hlt. apply Rmult_lt_compat_r; [exact Hb | apply IZR_lt; exact Hlt].
  - intros ->. reflexivity.
Qed.

(** the float denoted by the bit pattern the code assembles *)
Lemma model_float : forall Zr bw : Z, (2 ^ 52 <= Zr <= 2 ^ 53)%Z -> (1 <= bw <= 1024)%Z ->
  (bw = 1024%Z -> (Zr < 2 ^ 53)%Z) ->
  let bits := ((bw + 1022) * 2 ^ 52 + (Zr - 2 ^ 52))%Z in
  let F := b64_of_bits bits in
  (0 <= bits < 2 ^ 64)%Z /\
  is_finite 53 1024 F = true /\ Bsign 53 1024 F = false /\
  B2R 53 1024 F = (IZR Zr * bpow radix2 (bw - 53))%R.
Proof.
  intros Zr bw HZ Hbw Hc bits F. split; [unfold bits; lia|].
  destruct (Z.eq_dec Zr (2 ^ 53)) as [Ez|Nz].
  - assert (Eb : bits = ((bw + 1023) * 2 ^ 52 + 0)%Z) by (unfold bits; lia).
    unfold F. rewrite Eb.
    destruct (b64_of_bits_normal (bw + 1023) 0 ltac:(lia) ltac:(lia)) as [Hf [Hs Hr]].
    repeat split; [exact Hf | exact Hs |]. rewrite Hr, Ez, Z.add_0_r.
    rewrite IZR_p52, IZR_p53, <- !bpow_plus. f_equal. lia.
  - destruct (b64_of_bits_normal (bw + 1022) (Zr - 2 ^ 52) ltac:(lia) ltac:(lia)) as [Hf [Hs Hr]].
    repeat split; [exact Hf | exact Hs |]. unfold F, bits. rewrite Hr. f_equal; [f_equal; lia | f_equal; lia].
Qed.

Lemma b64_inf_bits : bits_of_b64 f64c_pos_inf = Z.of_N F64_INF_BITS.
Proof. reflexivity. Qed.

(** the bit pattern of the correctly rounded value *)
Theorem f64_of_N_bits : forall m e, m <> 0%N ->
  let bw := (N.size m + e)%N in
  bits_of_b64 (f64_of_N (m * 2 ^ e)) =
  Z.of_N (if (1024 <? bw)%N then F64_INF_BITS
          else ((bw + 1022) * 2 ^ 52 + (rnd53 m - 2 ^ 52))%N).
Proof.
  intros m e Hm bw.
  pose proof (rnd53_range m Hm) as [Rlo Rhi].
  assert (HZ : (2 ^ 52 <= Z.of_N (rnd53 m) <= 2 ^ 53)%Z).
  { change (2 ^ 52)%Z with (Z.of_N (2 ^ 52)). change (2 ^ 53)%Z with (Z.of_N (2 ^ 53)). lia. }
  pose proof (size_pos m Hm) as Hs.
  destruct (rnd_R_bounds (Z.of_N (rnd53 m)) (Z.of_N bw) HZ) as [B1 [B2 [B3 B4]]].
  pose proof (round_val m e Hm) as ER.
  replace (Z.of_N (N.size m) + Z.of_N e)%Z with (Z.of_N bw) in ER by (unfold bw; lia).
  set (R := (IZR (Z.of_N (rnd53 m)) * bpow radix2 (Z.of_N bw - 53))%R) in *.
  assert (HR : Rabs R = R).
  { apply Rabs_pos_eq. pose proof (bpow_ge_0 radix2 (Z.of_N bw - 1)). lra. }
  destruct (Rlt_or_le R (bpow radix2 1024)) as [Hlt|Hge].
  - assert (Hbw : (Z.of_N bw - 1 < 1024)%Z) by (apply (lt_bpow radix2); lra).
    destruct (N.ltb_spec 1024 bw) as [|_]; [lia|].
    destruct (f64_of_N_round (m * 2 ^ e)) as (C2 & C3 & C1); [rewrite ER, HR; exact Hlt|]. rewrite ER in C1.
    destruct (model_float (Z.of_N (rnd53 m)) (Z.of_N bw) HZ ltac:(unfold bw; lia)) as [Hrg [F1 [F2 F3]]].
    { intros Eb. destruct (Z.eq_dec (Z.of_N (rnd53 m)) (2 ^ 53)) as [Ez|]; [exfalso | lia].
      rewrite (B4 Ez), Eb in Hlt. exact (Rlt_irrefl _ Hlt). }
    rewrite <- (B2R_Bsign_inj 53 1024 _ _ F1 C2 ltac:(rewrite F3, C1; reflexivity) ltac:(rewrite F2, C3; reflexivity)).
    rewrite to_of_bits by exact Hrg.
    rewrite N2Z.inj_add, N2Z.inj_mul, N2Z.inj_add, N2Z.inj_sub by exact Rlo. reflexivity.
  - (* overflow: by the exponent, or the rounding carries into it *)
    rewrite f64_of_N_overflow by (rewrite ER, HR; exact Hge).
    destruct (N.ltb_spec 1024 bw) as [|Hfit]; [apply b64_inf_bits|].
    assert (E1024 : bw = 1024%N).
    { apply N.le_antisymm; [exact Hfit|]. apply N2Z.inj_le. apply (le_bpow radix2).
      change (Z.of_N 1024) with 1024%Z. lra. }
    assert (Ecarry : rnd53 m = (2 ^ 53)%N).
    { destruct (Z.eq_dec (Z.of_N (rnd53 m)) (2 ^ 53)) as [Ez|Nz].
      - change (2 ^ 53)%Z with (Z.of_N (2 ^ 53)) in Ez. lia.
      - exfalso. specialize (B3 ltac:(lia)). rewrite E1024 in B3. change (Z.of_N 1024) with 1024%Z in B3. lra. }
    rewrite E1024, Ecarry. reflexivity.
Qed.

Lemma f64_of_N_0 : bits_of_b64 (f64_of_N 0) = 0%Z.
Proof. reflexivity. Qed.

(** ** The theorems *)

(** [f64::from(&Natural)] is NaN for NaN and otherwise the value correctly
    rounded to binary64 (to nearest, ties to even, overflow to +infinity) *)
Theorem to_f64_bits_spec : forall a, Inv a ->
  match val a with
  | None => to_f64_bits a = F64_NAN_BITS
  | Some v => Z.of_N (to_f64_bits a) = bits_of_b64 (f64_of_N v)
  end.
Proof.
  intros a H. destruct (val a) as [v|] eqn:Ev.
  - destruct (val_inv a v Ev) as [Ea ->].
    rewrite (to_f64_bits_int a H Ea). cbv zeta.
    destruct (N.eqb_spec (mval a) 0) as [Hz|Hnz].
    + rewrite Hz, N.mul_0_l. symmetry. exact f64_of_N_0.
    + symmetry. apply (f64_of_N_bits (mval a) (expo a) Hnz).
  - rewrite to_f64_bits_unfold. unfold val in Ev. destruct (is_nan a); [reflexivity | discriminate].
Qed.

(** the same in terms of real numbers: the result is the rounded value ... *)
Theorem to_f64_round : forall a v, Inv a -> val a = Some v ->
  (Rabs (rnd64 (IZR (Z.of_N v))) < bpow radix2 1024)%R ->
  let f := b64_of_bits (Z.of_N (to_f64_bits a)) in
  is_finite 53 1024 f = true /\
  B2R 53 1024 f = rnd64 (IZR (Z.of_N v)) /\
  Bsign 53 1024 f = false.
Proof.
  intros a v H Hv Hlt f. pose proof (to_f64_bits_spec a H) as S. rewrite Hv in S.
  unfold f. rewrite S, of_to_bits.
  destruct (f64_of_N_round v Hlt) as (C2 & C3 & C1). repeat split; assumption.
Qed.

(** ... and +infinity when the rounded value is not below [2^1024] *)
Theorem to_f64_overflow : forall a v, Inv a -> val a = Some v ->
  (bpow radix2 1024 <= Rabs (rnd64 (IZR (Z.of_N v))))%R ->
  to_f64_bits a = F64_INF_BITS.
Proof.
  intros a v H Hv Hge. pose proof (to_f64_bits_spec a H) as S. rewrite Hv in S.
  apply N2Z.inj. rewrite S, (f64_of_N_overflow v Hge). apply b64_inf_bits.
Qed.

(** numbers with at most 53 significant bits below [2^1024] are converted exactly *)
Theorem to_f64_exact_gen : forall a v m e, Inv a -> val a = Some v ->
  v = (m * 2 ^ e)%N -> (m < 2 ^ 53)%N -> (v < 2 ^ 1024)%N ->
  let f := b64_of_bits (Z.of_N (to_f64_bits a)) in
  is_finite 53 1024 f = true /\ B2R 53 1024 f = IZR (Z.of_N v) /\ Bsign 53 1024 f = false.
Proof.
  intros a v m e H Hv Ev Hm Hlt.
  assert (Hr : rnd64 (IZR (Z.of_N v)) = IZR (Z.of_N v)).
  { rewrite Ev, <- dy_N. apply dy_round; [apply N.lt_le_incl, Hm | clear; lia]. }
  pose proof (to_f64_round a v H Hv) as R. rewrite Hr in R. apply R.
  rewrite Rabs_pos_eq by apply IZR_N_nonneg. apply (IZR_N_lt_bpow v 1024). exact Hlt.
Qed.

Theorem to_f64_exact : forall a v, Inv a -> val a = Some v -> (v < 2 ^ 53)%N ->
  B2R 53 1024 (b64_of_bits (Z.of_N (to_f64_bits a))) = IZR (Z.of_N v).
Proof.
  intros a v H Hv Hlt.
  apply (to_f64_exact_gen a v v 0 H Hv); [rewrite N.pow_0_r; symmetry; apply N.mul_1_r | exact Hlt |].
  apply (N.lt_trans _ _ _ Hlt). apply p2_lt. reflexivity.
Qed.

(** the pattern returned for NaN is a NaN *)
Theorem to_f64_nan : Binary.is_nan 53 1024 (b64_of_bits (Z.of_N F64_NAN_BITS)) = true.
Proof. reflexivity. Qed.

Theorem to_f64_NAN : to_f64_bits NAN = F64_NAN_BITS.
Proof. reflexivity. Qed.

(** ** Examples *)

Local Open Scope N_scope.

Example ex_tof64_zero : to_f64_bits (from_u64 0) = 0.
Proof. vm_compute. reflexivity. Qed.
Example ex_tof64_one : to_f64_bits (from_u64 1) = 0x3ff0000000000000.
Proof. vm_compute. reflexivity. Qed.
(* 2^53 + 1 is a tie: to even, 2^53 *)
Example ex_tof64_tie_even : to_f64_bits (from_u64 (2 ^ 53 + 1)) = 0x4340000000000000.
Proof. vm_compute. reflexivity. Qed.
(* 2^53 + 3 is a tie: to even, 2^53 + 4 *)
Example ex_tof64_tie_up : to_f64_bits (from_u64 (2 ^ 53 + 3)) = 0x4340000000000002.
Proof. vm_compute. reflexivity. Qed.
(* two digits: 2^64 + 1 rounds down, 2^64 + 2^11 + 1 rounds up *)
Example ex_tof64_two_digits_dn : to_f64_bits (from_u128 (2 ^ 64 + 1)) = 0x43f0000000000000.
Proof. vm_compute. reflexivity. Qed.
Example ex_tof64_two_digits_up : to_f64_bits (from_u128 (2 ^ 64 + 2 ^ 11 + 1)) = 0x43f0000000000001.
Proof. vm_compute. reflexivity. Qed.
Example ex_tof64_max_pow : to_f64_bits (nat_shl (from_u64 1) 1023) = 0x7fe0000000000000.
Proof. vm_compute. reflexivity. Qed.
Example ex_tof64_inf : to_f64_bits (nat_shl (from_u64 1) 1024) = F64_INF_BITS.
Proof. vm_compute. reflexivity. Qed.
(* the rounding carries into the overflow *)
Example ex_tof64_carry_inf : to_f64_bits (nat_shl (from_u64 (2 ^ 54 - 1)) 970) = F64_INF_BITS.
Proof. vm_compute. reflexivity. Qed.
Example ex_tof64_nan : to_f64_bits NAN = F64_NAN_BITS.
Proof. vm_compute. reflexivity. Qed.

(** the hypotheses of the theorems are satisfiable, and Flocq's conversion
    computes the same patterns *)
Example ex_tof64_inv : Inv (nat_shl (from_u64 (2 ^ 54 - 1)) 970) /\
  val (nat_shl (from_u64 (2 ^ 54 - 1)) 970) = Some ((2 ^ 54 - 1) * 2 ^ 970).
Proof.
  destruct (from_u64_spec (2 ^ 54 - 1) ltac:(reflexivity)) as [HI HV].
  destruct (nat_shl_spec _ 970 HI ltac:(discriminate)) as [HI' HV'].
  split; [exact HI'|]. vm_compute. reflexivity.
Qed.

Example ex_tof64_flocq_tie : bits_of_b64 (f64_of_N (2 ^ 53 + 1)) = 0x4340000000000000%Z.
Proof. vm_compute. reflexivity. Qed.
Example ex_tof64_flocq_carry_inf : bits_of_b64 (f64_of_N ((2 ^ 54 - 1) * 2 ^ 970)) = Z.of_N F64_INF_BITS.
Proof. vm_compute. reflexivity. Qed.
