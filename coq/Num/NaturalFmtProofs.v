(** * [impl fmt::Binary for Natural]: the digits written are the binary
      representation of the number (Num/Natural.v, [fmt_bin])

    [fmt_bin_spec]: for a value satisfying the invariant, [fmt_bin] is [None]
    (the text [?]) exactly for NaN; otherwise the list of bits, most
    significant first, whose value is the denoted number, without leading
    zeros ([[0]] for 0).  Octal / hexadecimal output ([fmt_pow2]) and the number
    handed to the decimal output ([dashu_int::UBig]): Num/NaturalTextProofs.v.  The padding
    and the decimal digits [UBig] writes are covered by the correspondence runs only. *)

From Coq Require Import List NArith Bool Lia.
From OxiVerif Require Import Num.Natural Num.NatBase Num.NaturalProofs Num.NaturalCmpProofs.
Import ListNotations.
Local Open Scope N_scope.

(** the number written by a list of digits in base 2, most significant first *)
Definition bits_acc (bs : list N) (acc : N) : N := fold_left (fun a b => 2 * a + b) bs acc.
Definition bits_val (bs : list N) : N := bits_acc bs 0.

Definition is_bits (bs : list N) : Prop := Forall (fun b => b <= 1) bs.

Lemma bits_acc_app : forall l r acc, bits_acc (l ++ r) acc = bits_acc r (bits_acc l acc).
Proof. intros. unfold bits_acc. apply fold_left_app. Qed.

Lemma mod_p2_succ : forall d p,
  d mod 2 ^ (p + 1) = (if N.testbit d p then 1 else 0) * 2 ^ p + d mod 2 ^ p.
Proof. intros d p. rewrite N.testbit_odd, N.shiftr_div_pow2, odd_b2n. apply (mod_p2_split d p 1). Qed.

Lemma bits_from_spec : forall k d acc,
  bits_acc (bits_from k d) acc = acc * 2 ^ N.of_nat k + d mod 2 ^ N.of_nat k /\
  length (bits_from k d) = k /\ is_bits (bits_from k d).
Proof.
  induction k as [|k IH]; intros d acc.
  - simpl. change (2 ^ 0) with 1. rewrite N.mod_1_r. repeat split; [unfold bits_acc; simpl; lia | constructor].
  - destruct (IH d (2 * acc + (if N.testbit d (N.of_nat k) then 1 else 0))) as [V [L B]].
    simpl bits_from. split; [|split].
    + change (bits_acc ((if N.testbit d (N.of_nat k) then 1 else 0) :: bits_from k d) acc)
        with (bits_acc (bits_from k d) (2 * acc + (if N.testbit d (N.of_nat k) then 1 else 0))).
      rewrite V, Nat2N.inj_succ, <- N.add_1_r, (mod_p2_succ d (N.of_nat k)), p2_succ. lia.
    + simpl. rewrite L. reflexivity.
    + constructor; [destruct (N.testbit d (N.of_nat k)); lia | exact B].
Qed.

Lemma flat_bits_spec : forall ds acc, inr ds ->
  bits_acc (flat_map (bits_from 64) ds) acc = acc * B64 ^ lenN ds + bev ds /\
  N.of_nat (length (flat_map (bits_from 64) ds)) = 64 * lenN ds /\
  is_bits (flat_map (bits_from 64) ds).
Proof.
  induction ds as [|d t IH]; intros acc H.
  - simpl. rewrite lenN_nil, N.pow_0_r. change (bev []) with 0. repeat split; [unfold bits_acc; simpl; lia | constructor].
  - apply inr_inv in H. destruct H as [Hd Ht].
    change (flat_map (bits_from 64) (d :: t)) with (bits_from 64 d ++ flat_map (bits_from 64) t).
    destruct (bits_from_spec 64 d acc) as [V1 [L1 B1]].
    destruct (IH (bits_acc (bits_from 64 d) acc) Ht) as [V2 [L2 B2]].
    split; [|split].
    + rewrite bits_acc_app, V2, V1, bev_cons, lenN_cons, N.pow_add_r, N.pow_1_r.
      change (2 ^ N.of_nat 64) with B64. rewrite (N.mod_small d B64 Hd). lia.
    + rewrite app_length, Nat2N.inj_add, L2, L1, lenN_cons. lia.
    + apply Forall_app. split; assumption.
Qed.

Lemma repeat0_bits : forall k acc,
  bits_acc (repeat 0 k) acc = acc * 2 ^ N.of_nat k /\ is_bits (repeat 0 k).
Proof.
  induction k as [|k IH]; intros acc.
  - simpl. change (2 ^ 0) with 1. split; [unfold bits_acc; simpl; lia | constructor].
  - destruct (IH (2 * acc + 0)) as [V B]. simpl repeat. split.
    + change (bits_acc (0 :: repeat 0 k) acc) with (bits_acc (repeat 0 k) (2 * acc + 0)).
      rewrite V, Nat2N.inj_succ, <- N.add_1_r, p2_succ. lia.
    + constructor; [lia | exact B].
Qed.

(** [Binary]: NaN is written as [?]; otherwise the bits of the number *)
Theorem fmt_bin_spec : forall a, Inv a ->
  match val a with
  | None => fmt_bin a = None
  | Some v =>
    exists bs, fmt_bin a = Some bs /\ bits_val bs = v /\ is_bits bs /\
      (v = 0 -> bs = [0]) /\ (v <> 0 -> hd 0 bs = 1 /\ N.of_nat (length bs) = N.size v)
  end.
Proof.
  intros a H. unfold fmt_bin, is_nan.
  destruct (N.eqb_spec (expo a) U64MAX) as [Ea|Ea]; [rewrite (val_nan a Ea); reflexivity|].
  rewrite (val_some a Ea).
  destruct (mantissa_spec a H) as [Rm [Nm [Vm [Lm Zm]]]].
  destruct (N.eq_dec (mval a) 0) as [Hz|Hnz].
  - rewrite (Zm Hz). simpl last. simpl. exists [0]. rewrite Hz, N.mul_0_l.
    split; [reflexivity|]. split; [reflexivity|]. split; [constructor; [lia | constructor]|].
    split; [intros _; reflexivity | intros Hc; contradiction].
  - specialize (Lm Hnz). set (m := mantissa a) in *. set (msd := last m 0) in *.
    destruct (N.eqb_spec msd 0) as [|_]; [contradiction|].
    assert (Er : rev m = msd :: rev (removelast m)).
    { rewrite (app_removelast_last 0 Nm) at 1. rewrite rev_app_distr. reflexivity. }
    rewrite Er. simpl tl. rewrite lz64_eq.
    pose proof (msd_size m Rm) as Hs. fold msd in Hs.
    replace (64 - (64 - N.size msd)) with (N.size msd) by lia.
    set (k := N.to_nat (N.size msd)). set (rest := rev (removelast m)).
    assert (Rrest : inr rest) by (apply inr_rev; apply inr_removelast; exact Rm).
    destruct (bits_from_spec k msd 0) as [V1 [L1 B1]].
    destruct (flat_bits_spec rest (bits_acc (bits_from k msd) 0) Rrest) as [V2 [L2 B2]].
    destruct (repeat0_bits (N.to_nat (expo a))
                (bits_acc (flat_map (bits_from 64) rest) (bits_acc (bits_from k msd) 0))) as [V3 B3].
    eexists. split; [reflexivity|].
    assert (Ek : N.of_nat k = N.size msd) by (unfold k; apply N2Nat.id).
    assert (Emsd : msd mod 2 ^ N.size msd = msd) by (apply N.mod_small; apply N.size_gt).
    assert (Eb : bev (msd :: rest) = mval a).
    { unfold bev, rest. rewrite <- Er, rev_involutive. exact Vm. }
    rewrite bev_cons in Eb.
    split; [|split; [|split]].
    + unfold bits_val. rewrite !bits_acc_app, V3, V2, V1, Ek, Emsd, N2Nat.id. rewrite <- Eb. lia.
    + apply Forall_app. split; [exact B1|]. apply Forall_app. split; [exact B2 | exact B3].
    + intros Hc. exfalso. pose proof (p2_pos (expo a)). nia.
    + intros _. split.
      * (* the first bit is the top bit of the most significant digit *)
        assert (Hk : k = S (N.to_nat (N.log2 msd))).
        { unfold k. rewrite (N.size_log2 msd Lm), N2Nat.inj_succ. reflexivity. }
        rewrite Hk. simpl bits_from. simpl hd. rewrite N2Nat.id, (N.bit_log2 msd Lm). reflexivity.
      * rewrite !app_length, !Nat2N.inj_add, L1, L2, repeat_length, N2Nat.id, Ek.
        rewrite size_mul_p2 by exact Hnz. rewrite <- Vm.
        rewrite (size_digits m Nm Rm Lm). fold msd. unfold rest, lenN. rewrite rev_length.
        pose proof (lenN_removelast m Nm) as El. unfold lenN in El. rewrite El. lia.
Qed.

Example ex_fmt_bin :
  fmt_bin (from_u64 10) = Some [1; 0; 1; 0] /\ fmt_bin (from_u64 0) = Some [0] /\
  fmt_bin (mkNat [3] U64MAX) = None /\
  option_map (@length N) (fmt_bin (from_u128 (2 ^ 100 + 1))) = Some 101%nat.
Proof. vm_compute. repeat split; reflexivity. Qed.
