(** * Proofs about the model of [oxidd_core::util::num::Natural] (Num/Natural.v)

    [val n] is the number a [natural] denotes: [None] for the error value NaN
    (exponent [u64::MAX]), otherwise [mantissa * 2^exponent].  [Inv n] is the
    representation invariant (it implies the code's own [check_inv]).  This
    file: the invariant, [bit_width], the constructors [From<u8..u128>], the
    shifts, [TryFrom -> u64/u128].  Addition: Num/NaturalAddProofs.v;
    [from_le_digits]: Num/NaturalDigitsProofs.v; equality, comparison and
    hashing: Num/NaturalCmpProofs.v. *)

From Coq Require Import List NArith Bool Lia.
From OxiVerif Require Import Num.Natural Num.NatBase.
Import ListNotations.
Local Open Scope N_scope.

Arguments N.add : simpl never.
Arguments N.sub : simpl never.
Arguments N.mul : simpl never.
Arguments N.div : simpl never.
Arguments N.modulo : simpl never.
Arguments N.pow : simpl never.
Arguments N.min : simpl never.
Arguments N.max : simpl never.
Arguments N.shiftl : simpl never.
Arguments N.shiftr : simpl never.
Arguments N.lor : simpl never.
Arguments N.size : simpl never.

(** ** The denotation and the invariant *)

(** the mantissa as a number *)
Definition mval (n : natural) : N := digits_val (digits n).

(** the denoted number; [None] is NaN *)
Definition val (n : natural) : option N :=
  if is_nan n then None else Some (mval n * 2 ^ expo n).

(** The representation invariant:
    - every digit is a u64, there is at least one digit, the exponent is a u64;
    - the mantissa is odd or zero; zero has exponent 0 (or is NaN);
    - a digit array with two or more elements (heap shape) holds a mantissa
      above [u64::MAX], and at most its most significant digit is zero, in
      which case the digit below has its top bit set
      ([2^(64*(len-1)-1) <= mantissa]). *)
Record Inv (n : natural) : Prop := mkInv {
  inv_inr : inr (digits n);
  inv_ne : digits n <> [];
  inv_exp : expo n <= U64MAX;
  inv_zero : mval n = 0 -> expo n = 0 \/ expo n = U64MAX;
  inv_odd : mval n <> 0 -> N.odd (mval n) = true;
  inv_big : (2 <= length (digits n))%nat ->
            B64 <= mval n /\ 2 ^ (64 * lenN (digits n) - 65) <= mval n
}.

(** what a computation may return for the exact result [v]: the number
    itself if its exponent (number of trailing zero bits) is a valid exponent,
    NaN otherwise *)
Definition norm (v : N) : option N :=
  if (v =? 0) || (ctz v <? U64MAX) then Some v else None.

Lemma is_nan_iff : forall n, is_nan n = true <-> expo n = U64MAX.
Proof. intros n. unfold is_nan. apply N.eqb_eq. Qed.

Lemma val_nan : forall n, expo n = U64MAX -> val n = None.
Proof. intros n E. unfold val, is_nan. rewrite E. reflexivity. Qed.

Lemma val_some : forall n, expo n <> U64MAX -> val n = Some (mval n * 2 ^ expo n).
Proof. intros n E. unfold val, is_nan. destruct (N.eqb_spec (expo n) U64MAX); [contradiction | reflexivity]. Qed.

Lemma val_inv : forall n v, val n = Some v -> expo n <> U64MAX /\ v = mval n * 2 ^ expo n.
Proof.
  intros n v. unfold val, is_nan. destruct (N.eqb_spec (expo n) U64MAX); [discriminate|].
  intros E. inversion E. split; [assumption | reflexivity].
Qed.

Lemma val_mk : forall ds e, val (mkNat ds e) = if e =? U64MAX then None else Some (digits_val ds * 2 ^ e).
Proof. reflexivity. Qed.

Lemma length_ge2 : forall (A : Type) (a b : A) l, (2 <= length (a :: b :: l))%nat.
Proof. intros. simpl. lia. Qed.

(** inline shape iff the mantissa is a u64 *)
Lemma inline_iff : forall n, Inv n -> (is_inline n = true <-> mval n < B64).
Proof.
  intros n H. unfold is_inline, mval. pose proof (inv_inr n H) as Hr. pose proof (inv_ne n H) as Hne.
  pose proof (inv_big n H) as Hb. unfold mval in Hb.
  destruct (digits n) as [|d [|d' l]]; [contradiction| |].
  - rewrite digits_val_single. apply inr_inv in Hr. split; [intros _; apply Hr | reflexivity].
  - destruct (Hb (length_ge2 _ _ _ _)) as [Hb1 _]. split; [discriminate | lia].
Qed.

(** the mantissa of a heap array in terms of its last digits *)
Lemma mval_zero_digits : forall n, Inv n -> mval n = 0 -> digits n = [0].
Proof.
  intros n H Hz. pose proof (inv_ne n H) as Hne. pose proof (inv_big n H) as Hb. unfold mval in *.
  destruct (digits n) as [|d [|d' l]]; [contradiction| |].
  - rewrite digits_val_single in Hz. subst d. reflexivity.
  - destruct (Hb (length_ge2 _ _ _ _)) as [Hb1 _]. unfold B64 in Hb1. lia.
Qed.

Lemma len_is_zero_iff : forall n, Inv n -> (len_is_zero n = true <-> mval n = 0).
Proof.
  intros n H. split.
  - unfold len_is_zero, mval. destruct (digits n) as [|d [|d' l]]; try discriminate.
    intros E. apply N.eqb_eq in E. subst d. reflexivity.
  - intros Hz. unfold len_is_zero. rewrite (mval_zero_digits n H Hz). reflexivity.
Qed.

(** [Inv] implies the code's own [check_inv] *)
Theorem Inv_check_inv : forall n, Inv n -> check_inv n = true.
Proof.
  intros n H. unfold check_inv.
  pose proof (inv_inr n H) as Hr. pose proof (inv_ne n H) as Hne. pose proof (inv_big n H) as Hb.
  pose proof (inv_odd n H) as Ho. pose proof (inv_zero n H) as Hz. unfold mval in *.
  destruct (digits n) as [|d0 [|d1 l]] eqn:Ed; [contradiction| |].
  - rewrite digits_val_single in *. destruct (N.eqb_spec d0 0) as [->|Hd].
    + destruct (Hz eq_refl) as [->| ->]; reflexivity.
    + apply Ho. exact Hd.
  - destruct (Hb (length_ge2 _ _ _ _)) as [Hb1 Hb2].
    assert (Hodd : N.odd d0 = true).
    { assert (Hnz : digits_val (d0 :: d1 :: l) <> 0) by (unfold B64 in Hb1; lia).
      specialize (Ho Hnz). rewrite digits_val_cons in Ho.
      rewrite N.odd_add_mul_even in Ho; [exact Ho|]. exists (B64 / 2). reflexivity. }
    rewrite Hodd, andb_true_l. destruct (N.eqb_spec (last (d0 :: d1 :: l) 0) 0) as [Hl|_]; [|reflexivity].
    apply N.leb_le. apply below_zero_top; [exact Hr | rewrite !lenN_cons; lia | exact Hl | exact Hb2].
Qed.

(** a way to establish the invariant *)
Lemma mk_Inv : forall ds e, inr ds -> ds <> [] -> e <= U64MAX -> N.odd (digits_val ds) = true ->
  (length ds = 1%nat \/ (B64 <= digits_val ds /\ 2 ^ (64 * lenN ds - 65) <= digits_val ds)) ->
  Inv (mkNat ds e).
Proof.
  intros ds e Hr Hne He Ho Hb. constructor; simpl; unfold mval; simpl; try assumption.
  - intros Hz. rewrite Hz in Ho. discriminate.
  - intros _. exact Ho.
  - intros Hl. destruct Hb as [Hb|Hb]; [lia | exact Hb].
Qed.

Lemma Inv_ZERO : Inv ZERO.
Proof.
  constructor; simpl; unfold mval; simpl.
  - apply inr_cons; [reflexivity | apply inr_nil].
  - discriminate.
  - discriminate.
  - intros _. left. reflexivity.
  - intros Hc. exfalso. apply Hc. reflexivity.
  - lia.
Qed.

Lemma Inv_NAN : Inv NAN.
Proof.
  constructor; simpl; unfold mval; simpl.
  - apply inr_cons; [reflexivity | apply inr_nil].
  - discriminate.
  - reflexivity.
  - intros _. right. reflexivity.
  - intros Hc. exfalso. apply Hc. reflexivity.
  - lia.
Qed.

Lemma val_ZERO : val ZERO = Some 0.
Proof. reflexivity. Qed.

Lemma val_NAN : val NAN = None.
Proof. reflexivity. Qed.

Lemma val_mk_some : forall ds e, e <> U64MAX -> val (mkNat ds e) = Some (digits_val ds * 2 ^ e).
Proof. intros ds e. exact (val_some (mkNat ds e)). Qed.

(** the two shapes that the constructors build directly *)
Lemma Inv_single : forall d e, d < B64 -> e <= U64MAX -> N.odd d = true -> Inv (mkNat [d] e).
Proof.
  intros d e Hd He Ho. apply mk_Inv; [|discriminate | exact He | rewrite digits_val_single; exact Ho | left; reflexivity].
  apply inr_cons; [exact Hd | apply inr_nil].
Qed.

Lemma Inv_pair : forall w e, B64 <= w -> w < B128 -> e <= U64MAX -> N.odd w = true ->
  Inv (mkNat [w mod B64; w / B64] e) /\ digits_val [w mod B64; w / B64] = w.
Proof.
  intros w e Hlo Hhi He Ho.
  assert (Ev : digits_val [w mod B64; w / B64] = w).
  { rewrite digits_val_cons, digits_val_single. symmetry. rewrite N.add_comm. apply N.div_mod. discriminate. }
  split; [|exact Ev]. apply mk_Inv; [|discriminate | exact He | rewrite Ev; exact Ho|].
  - apply inr_cons; [apply N.mod_lt; discriminate|]. apply inr_cons; [|apply inr_nil].
    apply N.div_lt_upper_bound; [discriminate | exact Hhi].
  - right. rewrite Ev. split; [exact Hlo|]. apply N.le_trans with B64; [discriminate | exact Hlo].
Qed.

Lemma inline_digits : forall n, Inv n -> mval n < B64 -> digits n = [mval n].
Proof.
  intros n H Hm. apply (inline_iff n H) in Hm. unfold is_inline in Hm. unfold mval.
  destruct (digits n) as [|d [|d' t]]; try discriminate. rewrite digits_val_single. reflexivity.
Qed.

Lemma Inv_set_expo : forall n e, Inv n -> e <= U64MAX -> (mval n = 0 -> e = 0 \/ e = U64MAX) ->
  Inv (mkNat (digits n) e).
Proof.
  intros n e H He Hz. constructor; simpl; unfold mval; simpl;
    [apply (inv_inr n H) | apply (inv_ne n H) | exact He | exact Hz | apply (inv_odd n H) | apply (inv_big n H)].
Qed.

(** the exponent is the number of trailing zeros of the value *)
Lemma val_ctz : forall n v, Inv n -> val n = Some v -> v <> 0 ->
  ctz v = expo n /\ N.odd (mval n) = true.
Proof.
  intros n v H Hv Hnz. destruct (val_inv n v Hv) as [He ->].
  assert (Hm : mval n <> 0) by (intros Hz; rewrite Hz in Hnz; lia).
  pose proof (inv_odd n H Hm) as Ho. split; [apply ctz_unique; exact Ho | exact Ho].
Qed.

Lemma val_zero_expo : forall n, Inv n -> val n = Some 0 -> mval n = 0 /\ expo n = 0.
Proof.
  intros n H Hv. destruct (val_inv n 0 Hv) as [He E].
  assert (Hm : mval n = 0) by (pose proof (p2_pos (expo n)); nia).
  split; [exact Hm|]. destruct (inv_zero n H Hm); [assumption | contradiction].
Qed.

(** every number a [natural] denotes is representable *)
Lemma val_norm : forall n v, Inv n -> val n = Some v -> norm v = Some v.
Proof.
  intros n v H Hv. unfold norm. destruct (N.eqb_spec v 0) as [|Hnz]; [reflexivity|].
  destruct (val_ctz n v H Hv Hnz) as [Hc _]. destruct (val_inv n v Hv) as [He _].
  pose proof (inv_exp n H). rewrite Hc. destruct (N.ltb_spec (expo n) U64MAX); [reflexivity | lia].
Qed.

Lemma norm_odd : forall m e, N.odd m = true -> e < U64MAX -> norm (m * 2 ^ e) = Some (m * 2 ^ e).
Proof.
  intros m e Ho He. unfold norm. rewrite (ctz_unique m e Ho).
  destruct (N.ltb_spec e U64MAX); [|lia]. rewrite orb_true_r. reflexivity.
Qed.

Lemma norm_big_ctz : forall m e, m <> 0 -> U64MAX <= ctz m + e -> norm (m * 2 ^ e) = None.
Proof.
  intros m e Hm He. unfold norm. rewrite (ctz_mul_p2 m e Hm).
  destruct (N.ltb_spec (ctz m + e) U64MAX); [lia|]. rewrite orb_false_r.
  destruct (N.eqb_spec (m * 2 ^ e) 0) as [Hz|]; [|reflexivity].
  exfalso. pose proof (p2_pos e). nia.
Qed.

Lemma val_sat_exp : forall ds M E V, digits_val ds = M -> N.odd M = true -> V = M * 2 ^ E ->
  val (mkNat ds (N.min E U64MAX)) = norm V.
Proof.
  intros ds M E V EM Ho ->. destruct (N.lt_ge_cases E U64MAX) as [Hlt|Hge].
  - rewrite N.min_l, val_mk_some, EM by lia. symmetry. apply norm_odd; assumption.
  - rewrite N.min_r by exact Hge. rewrite norm_big_ctz; [reflexivity | apply odd_nz; exact Ho | lia].
Qed.

(** ** [bit_width] *)

Lemma bit_width_digits_spec : forall ds e, inr ds -> ds <> [] ->
  (length ds = 1%nat \/ 2 ^ (64 * lenN ds - 65) <= digits_val ds) ->
  bit_width_digits ds e = N.size (digits_val ds) + e.
Proof.
  intros ds e Hr Hne Hb. unfold bit_width_digits. rewrite lz64_eq. f_equal.
  pose proof (msd_size ds Hr) as Hs. pose proof (lenN_pos ds Hne) as Hlen.
  destruct (N.eq_dec (last ds 0) 0) as [Hz|Hnz].
  - rewrite Hz. change (N.size 0) with 0.
    pose proof (digits_val_last ds Hne) as E. rewrite Hz, N.mul_0_r, N.add_0_r in E.
    destruct Hb as [Hb|Hb].
    + destruct ds as [|d [|d' l]]; try discriminate. simpl in Hz. subst d.
      rewrite digits_val_single. reflexivity.
    + pose proof (digits_val_lt (removelast ds) (inr_removelast ds Hr)) as Hlt.
      rewrite (lenN_removelast ds Hne), B64_pow, <- E in Hlt.
      destruct (N.eq_dec (lenN ds) 1) as [E1|N1].
      { rewrite E1 in Hlt. change (2 ^ (64 * (1 - 1))) with 1 in Hlt.
        assert (E0 : digits_val ds = 0) by lia. rewrite E0, E1. reflexivity. }
      replace (64 * lenN ds - (64 - 0)) with ((64 * lenN ds - 65) + 1) by lia.
      symmetry. apply size_unique; [exact Hb|].
      replace (64 * lenN ds - 65 + 1) with (64 * (lenN ds - 1)) by lia. exact Hlt.
  - rewrite (size_digits ds Hne Hr Hnz). lia.
Qed.

Theorem bit_width_spec : forall n, Inv n -> bit_width n = N.size (mval n) + expo n.
Proof.
  intros n H. unfold bit_width, mval. apply bit_width_digits_spec.
  - apply (inv_inr n H).
  - apply (inv_ne n H).
  - pose proof (inv_big n H) as Hb. pose proof (inv_ne n H) as Hne. unfold mval in Hb.
    destruct (digits n) as [|d [|d' l]]; [contradiction | left; reflexivity|].
    right. apply Hb. apply length_ge2.
Qed.

(** [bit_width] is [1 + floor(log2 v)] ([N.size v]; 0 for 0) *)
Theorem bit_width_val : forall n v, Inv n -> val n = Some v -> bit_width n = N.size v.
Proof.
  intros n v H Hv. rewrite (bit_width_spec n H). destruct (N.eq_dec v 0) as [->|Hnz].
  - destruct (val_zero_expo n H Hv) as [-> ->]. reflexivity.
  - destruct (val_inv n v Hv) as [He ->]. symmetry. apply size_mul_p2.
    intros Hz. rewrite Hz in Hnz. lia.
Qed.

(** ** [From<u64>] (and the narrower unsigned types) *)

Theorem from_u64_spec : forall v, v < B64 -> Inv (from_u64 v) /\ val (from_u64 v) = Some v.
Proof.
  intros v Hv. unfold from_u64, shl_amount. rewrite shr64_eq.
  destruct (N.eq_dec v 0) as [->|Hnz].
  - split; [exact Inv_ZERO | reflexivity].
  - destruct (ctz_div_odd v Hnz) as [Ho E]. pose proof (ctz_lt_size v Hnz) as Hc.
    pose proof (size_lt_B64 v Hv) as Hs. pose proof (div_p2_le v (ctz v)) as Hle.
    assert (He : ctz v < U64MAX) by (unfold U64MAX; lia).
    split.
    + apply Inv_single; [lia | lia | exact Ho].
    + rewrite val_mk_some, digits_val_single, <- E by lia. reflexivity.
Qed.

Theorem from_u32_spec : forall v, v < 2 ^ 32 -> Inv (from_u32 v) /\ val (from_u32 v) = Some v.
Proof. intros v Hv. apply from_u64_spec. pose proof (p2_lt 32 64 ltac:(lia)). rewrite B64_eq. lia. Qed.

Theorem from_u16_spec : forall v, v < 2 ^ 16 -> Inv (from_u16 v) /\ val (from_u16 v) = Some v.
Proof. intros v Hv. apply from_u64_spec. pose proof (p2_lt 16 64 ltac:(lia)). rewrite B64_eq. lia. Qed.

Theorem from_u8_spec : forall v, v < 2 ^ 8 -> Inv (from_u8 v) /\ val (from_u8 v) = Some v.
Proof. intros v Hv. apply from_u64_spec. pose proof (p2_lt 8 64 ltac:(lia)). rewrite B64_eq. lia. Qed.

(** ** [From<u128>] *)

Theorem from_u128_spec : forall v, v < B128 -> Inv (from_u128 v) /\ val (from_u128 v) = Some v.
Proof.
  intros v Hv. unfold from_u128. destruct (N.eqb_spec v 0) as [->|Hnz].
  - split; [exact Inv_ZERO | reflexivity].
  - destruct (ctz_div_odd v Hnz) as [Ho E]. pose proof (ctz_lt_size v Hnz) as Hc.
    assert (Hs : N.size v <= 128) by (apply size_le_iff; exact Hv).
    set (s := ctz v) in *. set (w := v / 2 ^ s) in *.
    assert (Sw : N.size w = N.size v - s) by apply size_div_p2.
    assert (Hse : s <> U64MAX) by (unfold U64MAX; lia).
    unfold lz128. rewrite !shr64_eq. fold w.
    destruct (N.leb_spec 64 (128 - N.size v + s)) as [Hfit|Hbig].
    + (* one digit *)
      assert (Hw : w < B64) by (rewrite B64_eq; apply size_le_iff; lia).
      split.
      * apply Inv_single; [exact Hw | unfold U64MAX; lia | exact Ho].
      * rewrite val_mk_some, digits_val_single, <- E by exact Hse. reflexivity.
    + (* two digits *)
      assert (Hw : B64 <= w) by (rewrite B64_eq; apply size_gt_iff; lia).
      assert (Hw2 : w < B128) by (rewrite B128_eq; apply size_le_iff; lia).
      change (2 ^ 64) with B64.
      destruct (Inv_pair w s Hw Hw2 ltac:(unfold U64MAX; lia) Ho) as [HI Ev].
      split; [exact HI|]. rewrite val_mk_some, Ev, <- E by exact Hse. reflexivity.
Qed.

(** ** [Shl<u64>] *)

(** [a << k] is [a * 2^k]; NaN iff the exponent leaves the u64 range
    (or [a] is NaN) *)
Theorem nat_shl_spec : forall a k, Inv a -> k <= U64MAX ->
  Inv (nat_shl a k) /\
  val (nat_shl a k) = match val a with Some x => norm (x * 2 ^ k) | None => None end.
Proof.
  intros a k H Hk. unfold nat_shl. destruct (len_is_zero a) eqn:Ez.
  - split; [exact H|]. apply (len_is_zero_iff a H) in Ez.
    destruct (val a) as [x|] eqn:Ev; [|reflexivity].
    destruct (val_inv a x Ev) as [_ ->]. rewrite Ez, !N.mul_0_l. reflexivity.
  - assert (Hm : mval a <> 0).
    { intros Hz. apply (len_is_zero_iff a H) in Hz. congruence. }
    pose proof (inv_odd a H Hm) as Ho. pose proof (inv_exp a H) as He.
    unfold sat_add64. split.
    + apply Inv_set_expo; [exact H | lia | contradiction].
    + destruct (N.eq_dec (expo a) U64MAX) as [Ea|Ea].
      * rewrite (val_nan a Ea). apply val_nan. simpl expo. lia.
      * rewrite (val_some a Ea). apply (val_sat_exp _ (mval a)); [reflexivity | exact Ho|].
        rewrite p2_add. lia.
Qed.

(** ** [Shr<u64>] *)

(** [a >> k] is the exact quotient [a / 2^k]; NaN iff a 1 bit would be
    shifted out (or [a] is NaN) *)
Theorem nat_shr_spec : forall a k, Inv a -> k <= U64MAX ->
  Inv (nat_shr a k) /\
  val (nat_shr a k) =
    match val a with
    | Some x => if x mod 2 ^ k =? 0 then Some (x / 2 ^ k) else None
    | None => None
    end.
Proof.
  intros a k H Hk. unfold nat_shr. pose proof (inv_exp a H) as He.
  destruct (N.leb_spec k (expo a)) as [Hle|Hgt].
  - destruct (N.eqb_spec (expo a) U64MAX) as [Ea|Ea].
    + split; [exact H|]. rewrite (val_nan a Ea). reflexivity.
    + rewrite (val_some a Ea). rewrite (p2_split (expo a) k Hle).
      replace (mval a * (2 ^ k * 2 ^ (expo a - k))) with (mval a * 2 ^ (expo a - k) * 2 ^ k) by lia.
      rewrite N.mod_mul, N.div_mul by apply p2_nz. simpl.
      assert (He' : expo a - k <> U64MAX) by lia.
      split.
      * apply Inv_set_expo; [exact H | lia|].
        intros Hz. destruct (inv_zero a H Hz) as [E0|E0]; [left; lia | contradiction].
      * apply val_mk_some. exact He'.
  - assert (Ea : expo a <> U64MAX) by lia. rewrite (val_some a Ea).
    destruct (len_is_zero a) eqn:Ez.
    + split; [exact H|]. apply (len_is_zero_iff a H) in Ez. rewrite Ez, N.mul_0_l.
      rewrite N.mod_0_l, N.div_0_l by apply p2_nz. simpl.
      rewrite (val_some a Ea), Ez, N.mul_0_l. reflexivity.
    + assert (Hm : mval a <> 0).
      { intros Hz. apply (len_is_zero_iff a H) in Hz. congruence. }
      pose proof (inv_odd a H Hm) as Ho. split.
      * apply Inv_set_expo; [exact H | lia | contradiction].
      * rewrite val_mk. simpl.
        assert (Hnz : mval a * 2 ^ expo a <> 0) by (pose proof (p2_pos (expo a)); nia).
        destruct (N.eqb_spec ((mval a * 2 ^ expo a) mod 2 ^ k) 0) as [Hd|_]; [|reflexivity].
        apply (mod_p2_ctz _ _ Hnz) in Hd. rewrite (ctz_unique _ _ Ho) in Hd. lia.
Qed.

(** ** [TryFrom<&Natural> for u64 / u128] *)

(** both conversions test the bit width of the value *)
Lemma size_val : forall a x, Inv a -> val a = Some x -> N.size x = N.size (mval a) + expo a.
Proof. intros a x H Hv. rewrite <- (bit_width_val a x H Hv). apply bit_width_spec. exact H. Qed.

Lemma expo_lt_width : forall a k, Inv a -> expo a <> U64MAX -> 0 < k ->
  N.size (mval a) + expo a <= k -> expo a < k.
Proof.
  intros a k H Ea Hk HW. destruct (N.eq_dec (mval a) 0) as [Hz|Hnz].
  - destruct (inv_zero a H Hz); lia.
  - pose proof (size_pos _ Hnz). lia.
Qed.

Lemma val_none_expo : forall a, val a = None -> expo a = U64MAX.
Proof. intros a Hv. apply is_nan_iff. unfold val in Hv. destruct (is_nan a); [reflexivity | discriminate]. Qed.

Lemma low_two_digits : forall ds, digits_val ds < B128 -> nth 0 ds 0 + B64 * nth 1 ds 0 = digits_val ds.
Proof.
  intros [|d0 [|d1 r]] Hlt; simpl nth.
  - reflexivity.
  - rewrite digits_val_single. apply N.add_0_r.
  - rewrite !digits_val_cons in *. destruct (N.eq_dec (digits_val r) 0) as [->|Hnz]; [lia|].
    exfalso. change B128 with (B64 * B64) in Hlt. nia.
Qed.

Theorem try_into_u64_spec : forall a, Inv a ->
  try_into_u64 a = match val a with
                   | Some x => if x <? B64 then Some x else None
                   | None => None
                   end.
Proof.
  intros a H. unfold try_into_u64. destruct (val a) as [x|] eqn:Ev.
  2:{ rewrite (val_none_expo a Ev). reflexivity. }
  destruct (val_inv a x Ev) as [Ea Ex]. pose proof (size_val a x H Ev) as Sx. rewrite lz64_eq.
  destruct (N.ltb_spec x B64) as [Hx|Hx].
  - assert (HW : N.size (mval a) + expo a <= 64) by (rewrite <- Sx; apply size_le_iff; exact Hx).
    assert (Hm : mval a < B64) by (rewrite B64_eq; apply size_le_iff; lia).
    pose proof (expo_lt_width a 64 H Ea eq_refl HW) as He.
    unfold is_inline. rewrite (inline_digits a H Hm). simpl hd.
    destruct (N.ltb_spec (expo a) 64); [|lia].
    destruct (N.leb_spec (expo a) (64 - N.size (mval a))); [|lia].
    simpl. rewrite shl64_small, <- Ex by (rewrite <- Ex; exact Hx). reflexivity.
  - (* the value has more than 64 bits: the tests cannot all succeed *)
    assert (HW : 64 < N.size (mval a) + expo a) by (rewrite <- Sx; apply size_gt_iff; exact Hx).
    destruct (expo a <? 64); [|reflexivity]. destruct (is_inline a) eqn:Ei; [|reflexivity].
    apply (inline_iff a H) in Ei. rewrite (inline_digits a H Ei). simpl hd. pose proof (size_lt_B64 _ Ei).
    destruct (N.leb_spec (expo a) (64 - N.size (mval a))); [lia | reflexivity].
Qed.

Theorem try_into_u128_spec : forall a, Inv a ->
  try_into_u128 a = match val a with
                    | Some x => if x <? B128 then Some x else None
                    | None => None
                    end.
Proof.
  intros a H. unfold try_into_u128. destruct (val a) as [x|] eqn:Ev.
  2:{ rewrite (val_none_expo a Ev). reflexivity. }
  destruct (val_inv a x Ev) as [Ea Ex]. pose proof (size_val a x H Ev) as Sx.
  pose proof (bit_width_spec a H) as Hbw. unfold bit_width, bit_width_digits in Hbw.
  rewrite (N.mul_comm (lenN (digits a))), Hbw.
  destruct (N.ltb_spec x B128) as [Hx|Hx].
  - assert (HW : N.size (mval a) + expo a <= 128) by (rewrite <- Sx; apply size_le_iff; exact Hx).
    pose proof (expo_lt_width a 128 H Ea eq_refl HW) as He.
    assert (Hl3 : lenN (digits a) <= 3).
    { (* four or more digits hold at least 2^(64*4-65) *)
      destruct (N.le_gt_cases (lenN (digits a)) 3) as [|Hl3]; [assumption|exfalso].
      destruct (inv_big a H) as [_ Hb]; [unfold lenN in Hl3; lia|]. apply size_gt_iff in Hb. lia. }
    destruct (N.ltb_spec (expo a) 128); [|lia]. destruct (N.leb_spec (lenN (digits a)) 3); [|lia].
    destruct (N.leb_spec (N.size (mval a) + expo a) 128); [|lia]. simpl. f_equal.
    rewrite N.shiftl_mul_pow2, low_two_digits; fold (mval a).
    + rewrite <- Ex. apply N.mod_small. exact Hx.
    + eapply N.le_lt_trans; [apply (mul_p2_ge _ (expo a))|]. rewrite <- Ex. exact Hx.
  - assert (HW : 128 < N.size (mval a) + expo a) by (rewrite <- Sx; apply size_gt_iff; exact Hx).
    destruct (N.leb_spec (N.size (mval a) + expo a) 128); [lia|]. rewrite andb_false_r. reflexivity.
Qed.
