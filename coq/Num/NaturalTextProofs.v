(** * [impl fmt::Octal / LowerHex / UpperHex / Display for Natural]
      (Num/Natural.v, section "Text": [fmt_pow2], [fmt_oct], [fmt_hex],
      [fmt_digit_count], [fmt_dec])

    Rust: /repo/crates/oxidd-core/src/util/num/bigint.rs,
    [Natural::fmt_pow2] (lines 1157-1220), [Octal], [LowerHex], [UpperHex]
    (1222-1240), [Display] (1064-1071) through [TryFrom<&Natural> for UBig]
    (932-943).

    [fmt_pow2_spec]: for every number of bits per digit [1 <= bpd <= 63] and
    every value satisfying the invariant, [fmt_pow2 bpd] is [None] (the text
    [?]) exactly for NaN; otherwise it is the list of digits in base [2^bpd],
    most significant first, whose value is the denoted number, without
    leading zeros ([[0]] for 0), and the number of digits is the digit count
    announced to [pad_integral], which is [ceil(bit width / bpd)].
    [fmt_oct_spec] / [fmt_hex_spec] are the instances 3 and 4.
    [fmt_dec_spec]: the number handed to [dashu_int::UBig] is the denoted
    number; [?] is printed for NaN and for exponents above [2^40]. *)

From Coq Require Import List NArith ZArith Bool Lia.
From OxiVerif Require Import Num.Natural Num.NatBase Num.NaturalProofs Num.NaturalCmpProofs Num.NaturalFmtProofs.
Import ListNotations.
Local Open Scope N_scope.

Arguments N.land : simpl never.

(** ** Digit lists in base [b], most significant first *)

Definition base_acc (b : N) (ds : list N) (acc : N) : N := fold_left (fun a d => b * a + d) ds acc.
(** the number written by a list of digits in base [b], most significant first *)
Definition base_val (b : N) (ds : list N) : N := base_acc b ds 0.
Definition is_digits (b : N) (ds : list N) : Prop := Forall (fun d => d < b) ds.

Lemma base_acc_cons : forall b d l acc, base_acc b (d :: l) acc = base_acc b l (b * acc + d).
Proof. reflexivity. Qed.

Lemma base_val_nil : forall b, base_val b [] = 0.
Proof. reflexivity. Qed.

Lemma base_acc_lin : forall b l acc, base_acc b l acc = acc * b ^ lenN l + base_val b l.
Proof.
  intros b. induction l as [|d l IH]; intros acc.
  - rewrite base_val_nil, lenN_nil, N.pow_0_r. unfold base_acc. simpl fold_left. lia.
  - unfold base_val. rewrite !base_acc_cons, (IH (b * acc + d)), (IH (b * 0 + d)).
    rewrite lenN_cons, N.pow_add_r, N.pow_1_r. set (X := b ^ lenN l). lia.
Qed.

Lemma base_val_cons : forall b d l, base_val b (d :: l) = d * b ^ lenN l + base_val b l.
Proof.
  intros b d l. unfold base_val at 1. rewrite base_acc_cons, base_acc_lin. f_equal. f_equal. lia.
Qed.

Lemma base_val_app : forall b l r, base_val b (l ++ r) = base_val b l * b ^ lenN r + base_val b r.
Proof.
  intros b l r. unfold base_val at 1. unfold base_acc. rewrite fold_left_app.
  fold (base_acc b l 0). fold (base_val b l). fold (base_acc b r (base_val b l)). apply base_acc_lin.
Qed.

Lemma base_val_repeat0 : forall b k, base_val b (repeat 0 k) = 0.
Proof.
  intros b. induction k as [|k IH]; [reflexivity|]. simpl repeat. rewrite base_val_cons, IH. lia.
Qed.

Lemma is_digits_repeat0 : forall b k, 0 < b -> is_digits b (repeat 0 k).
Proof. intros b k Hb. apply Forall_forall. intros x Hx. apply repeat_spec in Hx. subst x. exact Hb. Qed.

Lemma base_val_lt : forall b l, is_digits b l -> base_val b l < b ^ lenN l.
Proof.
  intros b. induction l as [|d l IH]; intros H.
  - rewrite base_val_nil, lenN_nil, N.pow_0_r. lia.
  - inversion H as [|? ? Hd Hl]; subst. specialize (IH Hl).
    rewrite base_val_cons, lenN_cons, N.pow_add_r, N.pow_1_r. set (X := b ^ lenN l) in *. nia.
Qed.

(** ** Arithmetic *)

Lemma land_mask : forall x n, N.land x (2 ^ n - 1) = x mod 2 ^ n.
Proof. intros x n. rewrite <- N.land_ones, N.ones_equiv, N.pred_sub. reflexivity. Qed.

(** the digit assembled from the low [t] bits of [msd] and the top [k] bits
    [w] of the next mantissa digit: [(msd << k | w) & mask] *)
Lemma digit_join : forall msd w t k, t + k <= 64 -> w < 2 ^ k ->
  (msd mod 2 ^ (64 - k) * 2 ^ k + w) mod 2 ^ (t + k) = msd mod 2 ^ t * 2 ^ k + w.
Proof.
  intros msd w t k Hk Hw. rewrite (N.add_comm t k), mod_p2_split.
  rewrite (N.add_comm (_ * 2 ^ k) w). rewrite N.div_add, N.mod_add by apply p2_nz.
  rewrite (N.div_small w), (N.mod_small w) by exact Hw.
  rewrite N.add_0_l, mod_p2_mod by lia. reflexivity.
Qed.

Lemma div_ceil_ge : forall a b, 1 <= b -> a <= b * div_ceil a b.
Proof.
  intros a b Hb. unfold div_ceil.
  pose proof (N.div_mod (a + (b - 1)) b ltac:(lia)) as E.
  pose proof (N.mod_lt (a + (b - 1)) b ltac:(lia)) as Hm. lia.
Qed.

(** [rem_bits] of [fmt_pow2] *)
Lemma rem_bits_spec : forall W bpd, 1 <= bpd ->
  let r := if W mod bpd =? 0 then bpd else W mod bpd in
  1 <= r /\ r <= bpd /\ W + bpd = bpd * div_ceil W bpd + r.
Proof.
  intros W bpd Hb r. unfold div_ceil.
  pose proof (N.div_mod W bpd ltac:(lia)) as E. pose proof (N.mod_lt W bpd ltac:(lia)) as Hm.
  set (q := W / bpd) in *. set (r0 := W mod bpd) in *.
  destruct (N.eqb_spec r0 0) as [Hz|Hnz]; subst r.
  - assert (Eq : (W + (bpd - 1)) / bpd = q).
    { symmetry. apply N.div_unique with (r := bpd - 1); lia. }
    rewrite Eq. lia.
  - assert (Eq : (W + (bpd - 1)) / bpd = q + 1).
    { symmetry. apply N.div_unique with (r := r0 - 1); lia. }
    rewrite Eq. lia.
Qed.

Lemma join_lt : forall a w A K, a < A -> w < K -> a * K + w < A * K.
Proof. intros. nia. Qed.

(** the digit count splits into the digits of the mantissa part and the
    zeros of the exponent; the padding is the exponent's remainder *)
Lemma count_pad : forall bpd sz e r Q pad n, pad < bpd ->
  sz + bpd + pad = bpd * n + r -> sz + e + bpd = bpd * Q + r ->
  Q = n + e / bpd /\ pad = e mod bpd.
Proof.
  intros bpd sz e r Q pad n Hpad H1 H2.
  assert (Hb : bpd <> 0) by lia.
  pose proof (N.div_mod e bpd Hb) as Ee. pose proof (N.mod_lt e bpd Hb) as He.
  apply (N.div_mod_unique bpd Q (n + e / bpd) pad (e mod bpd) Hpad He). lia.
Qed.

Lemma top_digit_nonzero : forall b d out, is_digits (2 ^ b) (d :: out) ->
  b * lenN out < N.size (base_val (2 ^ b) (d :: out)) -> d <> 0.
Proof.
  intros b d out Hd Hs ->. rewrite base_val_cons, N.mul_0_l, N.add_0_l in Hs.
  pose proof (base_val_lt (2 ^ b) out (Forall_inv_tail Hd)) as Hlt.
  rewrite <- N.pow_mul_r in Hlt. apply size_le_iff in Hlt. lia.
Qed.

(** ** The loop of [fmt_pow2] *)

Lemma pow2_loop_A : forall f bpd msd rest offset acc, (0 <= offset)%Z ->
  pow2_loop (S f) bpd msd rest offset acc =
  pow2_loop f bpd msd rest (offset - Z.of_N bpd)%Z
    (N.land (shr64 msd (Z.to_N offset)) (2 ^ bpd - 1) :: acc).
Proof. intros. cbn [pow2_loop]. destruct (Z.leb_spec 0 offset); [reflexivity | lia]. Qed.

Lemma pow2_loop_B : forall f bpd msd v rest offset acc, (offset < 0)%Z ->
  pow2_loop (S f) bpd msd (v :: rest) offset acc =
  pow2_loop f bpd v rest (offset + 64 - Z.of_N bpd)%Z
    (N.land (N.lor (shl64 msd (Z.to_N (- offset))) (shr64 v (Z.to_N (offset + 64)))) (2 ^ bpd - 1) :: acc).
Proof. intros. cbn [pow2_loop]. destruct (Z.leb_spec 0 offset); [lia | reflexivity]. Qed.

Lemma pow2_loop_C : forall f bpd msd offset acc, (offset < 0)%Z ->
  pow2_loop (S f) bpd msd [] offset acc =
  if (offset + 64 =? 64 - Z.of_N bpd)%Z then Some (rev acc)
  else Some (rev (N.land (shl64 msd (Z.to_N (- offset))) (2 ^ bpd - 1) :: acc)).
Proof. intros. cbn [pow2_loop]. destruct (Z.leb_spec 0 offset); [lia | reflexivity]. Qed.

(** Invariant of the loop.  [t = offset + bpd] is the number of bits of [msd]
    that have not been written yet; the pending number is
    [msd mod 2^t * B64^|rest| + bev rest], a number of [t + 64 * |rest|] bits.
    The loop writes it left-aligned to a multiple of [bpd] bits (the [pad]
    zero bits at the end stand for the low bits of the exponent). *)
Lemma pow2_loop_spec : forall bpd, 1 <= bpd -> bpd <= 63 ->
  forall fuel msd rest t acc, inr rest ->
  t + 64 * lenN rest + bpd <= bpd * N.of_nat fuel ->
  exists out pad,
    pow2_loop fuel bpd msd rest (Z.of_N t - Z.of_N bpd)%Z acc = Some (rev acc ++ out) /\
    t + 64 * lenN rest + pad = bpd * lenN out /\ pad < bpd /\ is_digits (2 ^ bpd) out /\
    base_val (2 ^ bpd) out = (msd mod 2 ^ t * B64 ^ lenN rest + bev rest) * 2 ^ pad.
Proof.
  intros bpd Hb1 Hb2. induction fuel as [|f IH]; intros msd rest t acc Hr Hf.
  - exfalso. change (N.of_nat 0) with 0 in Hf. lia.
  - rewrite Nat2N.inj_succ in Hf. destruct (N.le_gt_cases bpd t) as [Ht|Ht].
    + (* offset >= 0 *)
      rewrite pow2_loop_A by lia.
      replace (Z.to_N (Z.of_N t - Z.of_N bpd)) with (t - bpd) by lia.
      replace (Z.of_N t - Z.of_N bpd - Z.of_N bpd)%Z with (Z.of_N (t - bpd) - Z.of_N bpd)%Z by lia.
      rewrite land_mask, shr64_eq. set (d := (msd / 2 ^ (t - bpd)) mod 2 ^ bpd).
      destruct (IH msd rest (t - bpd) (d :: acc) Hr ltac:(lia)) as [out [pad [E [HP [Hpad [Hd V]]]]]].
      exists (d :: out), pad. split; [|split; [|split; [|split]]].
      * rewrite E. simpl rev. rewrite <- app_assoc. reflexivity.
      * rewrite lenN_cons. lia.
      * exact Hpad.
      * constructor; [apply N.mod_lt, p2_nz | exact Hd].
      * assert (Em : msd mod 2 ^ t = d * 2 ^ (t - bpd) + msd mod 2 ^ (t - bpd)).
        { unfold d. rewrite <- mod_p2_split. f_equal. f_equal. lia. }
        rewrite base_val_cons, V, Em, <- N.pow_mul_r, <- HP, B64_pow, !p2_add.
        set (A := 2 ^ (t - bpd)). set (X := 2 ^ (64 * lenN rest)). set (Pd := 2 ^ pad).
        set (M := msd mod 2 ^ (t - bpd)). set (bv := bev rest). lia.
    + (* offset < 0 *)
      set (k := bpd - t). assert (Hk : t + k = bpd) by (unfold k; lia). clearbody k.
      destruct rest as [|v rest'].
      * rewrite pow2_loop_C by lia. rewrite lenN_nil in *.
        destruct (Z.eqb_spec (Z.of_N t - Z.of_N bpd + 64) (64 - Z.of_N bpd)) as [Hz|Hnz].
        -- assert (t = 0) by lia. subst t. exists [], 0.
           rewrite app_nil_r, lenN_nil, base_val_nil.
           change (2 ^ 0) with 1. rewrite N.mod_1_r. change (bev []) with 0.
           repeat split; [lia | lia | constructor].
        -- replace (Z.to_N (- (Z.of_N t - Z.of_N bpd))) with k by lia.
           rewrite land_mask, shl64_eq by lia.
           assert (Ed : (msd mod 2 ^ (64 - k) * 2 ^ k) mod 2 ^ bpd = msd mod 2 ^ t * 2 ^ k).
           { pose proof (digit_join msd 0 t k ltac:(lia) (p2_pos k)) as X.
             rewrite !N.add_0_r, Hk in X. exact X. }
           rewrite Ed. exists [msd mod 2 ^ t * 2 ^ k], k.
           split; [|split; [|split; [|split]]].
           ++ simpl rev. reflexivity.
           ++ unfold lenN. simpl length. lia.
           ++ lia.
           ++ constructor; [|constructor]. rewrite <- Hk, p2_add.
              apply N.mul_lt_mono_pos_r; [apply p2_pos | apply N.mod_lt, p2_nz].
           ++ rewrite base_val_cons, base_val_nil, lenN_nil, !N.pow_0_r. change (bev []) with 0. lia.
      * apply inr_inv in Hr. destruct Hr as [Hv Hr'].
        rewrite pow2_loop_B by lia. rewrite lenN_cons in *.
        replace (Z.to_N (- (Z.of_N t - Z.of_N bpd))) with k by lia.
        replace (Z.to_N (Z.of_N t - Z.of_N bpd + 64)) with (64 - k) by lia.
        replace (Z.of_N t - Z.of_N bpd + 64 - Z.of_N bpd)%Z with (Z.of_N (64 - k) - Z.of_N bpd)%Z by lia.
        rewrite land_mask, shl64_eq, shr64_eq by lia.
        set (w := v / 2 ^ (64 - k)).
        assert (Hw : w < 2 ^ k).
        { unfold w. apply div_p2_lt. replace (64 - k + k) with 64 by lia. exact Hv. }
        rewrite (lor_disjoint w _ k Hw).
        assert (Ed : (msd mod 2 ^ (64 - k) * 2 ^ k + w) mod 2 ^ bpd = msd mod 2 ^ t * 2 ^ k + w).
        { pose proof (digit_join msd w t k ltac:(lia) Hw) as X. rewrite Hk in X. exact X. }
        rewrite Ed. set (d := msd mod 2 ^ t * 2 ^ k + w).
        destruct (IH v rest' (64 - k) (d :: acc) Hr' ltac:(lia)) as [out [pad [E [HP [Hpad [Hd V]]]]]].
        exists (d :: out), pad. split; [|split; [|split; [|split]]].
        -- rewrite E. simpl rev. rewrite <- app_assoc. reflexivity.
        -- rewrite lenN_cons. lia.
        -- exact Hpad.
        -- constructor; [|exact Hd]. unfold d. rewrite <- Hk, p2_add.
           apply join_lt; [apply N.mod_lt, p2_nz | exact Hw].
        -- rewrite base_val_cons, V, bev_cons, <- N.pow_mul_r, <- HP.
           pose proof (N.div_mod v (2 ^ (64 - k)) (p2_nz _)) as Ev. fold w in Ev.
           assert (EB : B64 = 2 ^ k * 2 ^ (64 - k)).
           { rewrite <- p2_add. replace (k + (64 - k)) with 64 by lia. reflexivity. }
           rewrite (N.pow_add_r B64 (lenN rest') 1), N.pow_1_r, !p2_add, <- B64_pow.
           replace (B64 ^ lenN rest' * v)
             with (B64 ^ lenN rest' * (2 ^ (64 - k) * w + v mod 2 ^ (64 - k))) by (rewrite <- Ev; reflexivity).
           replace (B64 ^ lenN rest' * B64)
             with (B64 ^ lenN rest' * (2 ^ k * 2 ^ (64 - k))) by (rewrite <- EB; reflexivity).
           unfold d.
           set (A := 2 ^ (64 - k)). set (X := B64 ^ lenN rest'). set (Pd := 2 ^ pad).
           set (M := msd mod 2 ^ t). set (bv := bev rest'). set (vm := v mod A). set (K := 2 ^ k).
           lia.
Qed.

(** ** [fmt_pow2] *)

Theorem fmt_pow2_spec : forall bpd a, 1 <= bpd -> bpd <= 63 -> Inv a ->
  match val a with
  | None => fmt_pow2 bpd a = None
  | Some v =>
    exists ds, fmt_pow2 bpd a = Some ds /\ base_val (2 ^ bpd) ds = v /\ is_digits (2 ^ bpd) ds /\
      (v = 0 -> ds = [0]) /\
      (v <> 0 -> hd 0 ds <> 0 /\ N.of_nat (length ds) = fmt_digit_count bpd a /\
                 fmt_digit_count bpd a = div_ceil (N.size v) bpd)
  end.
Proof.
  intros bpd a Hb1 Hb2 H. unfold fmt_pow2, fmt_digit_count, is_nan.
  destruct (N.eqb_spec (expo a) U64MAX) as [Ea|Ea]; [rewrite (val_nan a Ea); reflexivity|].
  rewrite (val_some a Ea).
  destruct (mantissa_spec a H) as [Rm [Nm [Vm [Lm Zm]]]].
  destruct (N.eq_dec (mval a) 0) as [Hz|Hnz].
  - rewrite (Zm Hz). simpl last. rewrite N.eqb_refl. exists [0]. rewrite Hz, N.mul_0_l.
    split; [reflexivity|]. split; [rewrite base_val_cons, base_val_nil; lia|].
    split; [constructor; [apply p2_pos | constructor]|].
    split; [intros _; reflexivity | intros Hc; contradiction].
  - specialize (Lm Hnz). set (m := mantissa a) in *. set (msd := last m 0) in *.
    destruct (N.eqb_spec msd 0) as [|_]; [contradiction|].
    assert (Er : rev m = msd :: rev (removelast m)).
    { rewrite (app_removelast_last 0 Nm) at 1. rewrite rev_app_distr. reflexivity. }
    rewrite Er. simpl tl. set (rest := rev (removelast m)).
    assert (Rrest : inr rest) by (apply inr_rev; apply inr_removelast; exact Rm).
    assert (Lrest : lenN rest = lenN m - 1).
    { unfold rest, lenN. rewrite rev_length. apply (lenN_removelast m Nm). }
    pose proof (lenN_pos m Nm) as Lm1. pose proof (msd_size m Rm) as Hs. fold msd in Hs.
    pose proof (size_pos msd Lm) as Hs1.
    pose proof (size_digits m Nm Rm Lm) as Sz. fold msd in Sz. rewrite Vm in Sz.
    unfold bit_width_digits. fold msd. rewrite lz64_eq.
    replace (64 - (64 - N.size msd)) with (N.size msd) by lia.
    assert (EW : 64 * lenN m - (64 - N.size msd) + expo a = N.size (mval a) + expo a) by lia.
    rewrite EW. set (W := N.size (mval a) + expo a).
    destruct (rem_bits_spec W bpd Hb1) as [Hr1 [Hr2 Hr3]].
    set (r := if W mod bpd =? 0 then bpd else W mod bpd) in *.
    set (Q := div_ceil W bpd) in *.
    set (t := N.size msd + bpd - r).
    replace (Z.of_N (N.size msd) - Z.of_N r)%Z with (Z.of_N t - Z.of_N bpd)%Z by (unfold t; lia).
    set (fuel := S (S (N.to_nat (div_ceil (64 * lenN m) bpd)))).
    assert (Hfuel : t + 64 * lenN rest + bpd <= bpd * N.of_nat fuel).
    { unfold fuel. rewrite !Nat2N.inj_succ, N2Nat.id.
      pose proof (div_ceil_ge (64 * lenN m) bpd Hb1) as Hg.
      set (dc := div_ceil (64 * lenN m) bpd) in *. rewrite Lrest. unfold t. lia. }
    destruct (pow2_loop_spec bpd Hb1 Hb2 fuel msd rest t [] Rrest Hfuel)
      as [out [pad [E [HP [Hpad [Hd V]]]]]].
    rewrite E. simpl rev. simpl app.
    (* the pending number is the mantissa *)
    assert (Emsd : msd mod 2 ^ t = msd).
    { apply N.mod_small. eapply N.lt_le_trans; [apply N.size_gt | apply p2_le; unfold t; clear - Hr2; lia]. }
    assert (Eb : bev (msd :: rest) = mval a).
    { unfold bev, rest. rewrite <- Er, rev_involutive. exact Vm. }
    assert (V' : base_val (2 ^ bpd) out = mval a * 2 ^ pad).
    { rewrite V, Emsd, <- Eb, bev_cons, N.add_comm, (N.mul_comm msd). reflexivity. }
    (* digit count and padding *)
    assert (HP' : N.size (mval a) + bpd + pad = bpd * lenN out + r).
    { clear - HP Lrest Sz Hr2 Lm1. unfold t in HP. lia. }
    destruct (count_pad bpd (N.size (mval a)) (expo a) r Q pad (lenN out) Hpad HP' Hr3) as [EQ Epad].
    clear E V Emsd Eb Hfuel HP.
    eexists. split; [reflexivity|]. split; [|split; [|split]].
    + rewrite base_val_app, base_val_repeat0, lenN_repeat, N2Nat.id, V', <- N.pow_mul_r, Epad.
      rewrite N.add_0_r, <- N.mul_assoc, <- p2_add, (N.add_comm (_ mod _)), <- N.div_mod by (clear - Hb1; lia).
      reflexivity.
    + apply Forall_app. split; [exact Hd | apply is_digits_repeat0; apply p2_pos].
    + intros Hc. exfalso. apply N.eq_mul_0 in Hc. destruct Hc as [Hc|Hc]; [contradiction|].
      exact (p2_nz (expo a) Hc).
    + intros _. split; [|split].
      * (* the first digit contains the top bit of the mantissa *)
        destruct out as [|d out'].
        { exfalso. apply Hnz, size_0_iff. rewrite lenN_nil in HP'. clear - HP' Hr2. lia. }
        apply (top_digit_nonzero bpd d out' Hd). rewrite V', (size_mul_p2 _ _ Hnz).
        rewrite lenN_cons in HP'. clear - HP' Hr1. lia.
      * unfold lenN in EQ. rewrite app_length, repeat_length, Nat2N.inj_add, N2Nat.id. symmetry. exact EQ.
      * unfold Q, W. rewrite size_mul_p2 by exact Hnz. reflexivity.
Qed.

(** [impl fmt::Octal] *)
Theorem fmt_oct_spec : forall a, Inv a ->
  match val a with
  | None => fmt_oct a = None
  | Some v =>
    exists ds, fmt_oct a = Some ds /\ base_val 8 ds = v /\ is_digits 8 ds /\
      (v = 0 -> ds = [0]) /\
      (v <> 0 -> hd 0 ds <> 0 /\ N.of_nat (length ds) = fmt_digit_count 3 a /\
                 fmt_digit_count 3 a = div_ceil (N.size v) 3)
  end.
Proof. intros a H. exact (fmt_pow2_spec 3 a ltac:(lia) ltac:(lia) H). Qed.

(** [impl fmt::LowerHex], [impl fmt::UpperHex] (the two differ in the
    character table only) *)
Theorem fmt_hex_spec : forall a, Inv a ->
  match val a with
  | None => fmt_hex a = None
  | Some v =>
    exists ds, fmt_hex a = Some ds /\ base_val 16 ds = v /\ is_digits 16 ds /\
      (v = 0 -> ds = [0]) /\
      (v <> 0 -> hd 0 ds <> 0 /\ N.of_nat (length ds) = fmt_digit_count 4 a /\
                 fmt_digit_count 4 a = div_ceil (N.size v) 4)
  end.
Proof. intros a H. exact (fmt_pow2_spec 4 a ltac:(lia) ltac:(lia) H). Qed.

(** ** [Display]: the number handed to [UBig] *)

Theorem fmt_dec_spec : forall a, Inv a ->
  fmt_dec a = match val a with
              | Some v => if expo a <=? 2 ^ 40 then Some v else None
              | None => None
              end.
Proof.
  intros a H. unfold fmt_dec. change (2 ^ 40) with 1099511627776.
  destruct (N.eq_dec (expo a) U64MAX) as [Ea|Ea].
  - rewrite (val_nan a Ea), Ea. reflexivity.
  - rewrite (val_some a Ea). destruct (mantissa_spec a H) as [_ [_ [Vm _]]].
    rewrite Vm, N.shiftl_mul_pow2.
    destruct (N.ltb_spec 1099511627776 (expo a)); destruct (N.leb_spec (expo a) 1099511627776);
      try lia; reflexivity.
Qed.

(** ** Examples (also: the hypotheses are satisfiable by non-trivial values) *)

Example ex_fmt_pow2 :
  fmt_oct (from_u64 10) = Some [1; 2] /\ fmt_hex (from_u64 0) = Some [0] /\
  fmt_oct (mkNat [3] U64MAX) = None /\ fmt_hex (mkNat [3] U64MAX) = None /\
  option_map (@length N) (fmt_hex (from_u128 (2 ^ 100 + 1))) = Some 26%nat /\
  fmt_digit_count 4 (from_u128 (2 ^ 100 + 1)) = 26 /\
  (* exponent 5 is not a multiple of 4: 3 * 2^5 = 0x60 *)
  fmt_hex (mkNat [3] 5) = Some [6; 0] /\
  (* 5 * 2^7 = 640 = 0o1200 *)
  fmt_oct (mkNat [5] 7) = Some [1; 2; 0; 0] /\
  (* a mantissa of three u64 digits: 1 + 2^64 + 2^128, shifted by 2 *)
  fmt_hex (mkNat [1; 1; 1] 2) =
    Some ([4] ++ repeat 0 15 ++ [4] ++ repeat 0 15 ++ [4]) /\
  option_map (base_val 8) (fmt_oct (mkNat [1; 1; 1] 2)) = Some ((1 + 2 ^ 64 + 2 ^ 128) * 4) /\
  option_map (@length N) (fmt_oct (mkNat [1; 1; 1] 2)) = Some 44%nat /\
  fmt_digit_count 3 (mkNat [1; 1; 1] 2) = 44.
Proof. vm_compute. repeat split; reflexivity. Qed.

Example ex_fmt_dec :
  fmt_dec (from_u64 10) = Some 10 /\ fmt_dec (mkNat [3] 5) = Some 96 /\
  fmt_dec (mkNat [3] U64MAX) = None /\ fmt_dec (mkNat [1] (2 ^ 40 + 1)) = None /\
  fmt_dec (mkNat [1; 1; 1] 2) = Some ((1 + 2 ^ 64 + 2 ^ 128) * 4).
Proof. vm_compute. repeat split; reflexivity. Qed.

Example ex_inv_three_digits : Inv (mkNat [1; 1; 1] 2) /\ val (mkNat [1; 1; 1] 2) = Some ((1 + 2 ^ 64 + 2 ^ 128) * 4).
Proof.
  split; [|vm_compute; reflexivity].
  apply mk_Inv.
  - repeat constructor.
  - discriminate.
  - vm_compute. discriminate.
  - vm_compute. reflexivity.
  - right. split; vm_compute; discriminate.
Qed.
