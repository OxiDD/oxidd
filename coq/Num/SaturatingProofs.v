(** * [Saturating<u64>] / [Saturating<u128>] (Num/Saturating.v)

    [sval w a] is the number a value denotes: [None] for the out-of-bounds
    marker [T::MAX].  Addition and left shift return the exact result while it
    is below the marker and the marker otherwise; the marker is absorbing for
    every operation; right shift and subtraction of in-range values are exact. *)

From Coq Require Import NArith Bool Lia.
From OxiVerif Require Import Num.Natural Num.NatBase Num.Saturating.
Local Open Scope N_scope.

Arguments N.add : simpl never.
Arguments N.sub : simpl never.
Arguments N.mul : simpl never.
Arguments N.div : simpl never.
Arguments N.modulo : simpl never.
Arguments N.pow : simpl never.
Arguments N.min : simpl never.
Arguments N.size : simpl never.

Definition sval (w a : N) : option N := if a =? su_max w then None else Some a.

(** what an operation with the exact result [x] returns *)
Definition sfit (w x : N) : option N := if x <? su_max w then Some x else None.

Section W.
Variable w : N.
Hypothesis Hw : 1 <= w.

Let MAX := su_max w.

Lemma su_max_eq : MAX = 2 ^ w - 1.
Proof. reflexivity. Qed.

Lemma su_max_pos : 1 <= MAX.
Proof. unfold MAX, su_max. pose proof (p2_le 1 w Hw). change (2 ^ 1) with 2 in H. lia. Qed.

Theorem su_add_spec : forall a b, a <= MAX -> b <= MAX ->
  su_add w a b <= MAX /\
  sval w (su_add w a b) =
    match sval w a, sval w b with
    | Some x, Some y => sfit w (x + y)
    | _, _ => None
    end.
Proof.
  intros a b Ha Hb. unfold su_add, sval, sfit. fold MAX. split; [lia|].
  destruct (N.eqb_spec a MAX) as [Ea|Ea].
  - rewrite N.min_r by lia. rewrite N.eqb_refl. reflexivity.
  - destruct (N.eqb_spec b MAX) as [Eb|Eb].
    + rewrite N.min_r by lia. rewrite N.eqb_refl. reflexivity.
    + destruct (N.ltb_spec (a + b) MAX) as [Hlt|Hge].
      * rewrite N.min_l by lia. destruct (N.eqb_spec (a + b) MAX); [lia | reflexivity].
      * rewrite N.min_r by lia. rewrite N.eqb_refl. reflexivity.
Qed.

Theorem su_shl_spec : forall a k, a <= MAX ->
  su_shl w a k <= MAX /\
  sval w (su_shl w a k) =
    match sval w a with
    | Some x => sfit w (x * 2 ^ k)
    | None => None
    end.
Proof.
  intros a k Ha. pose proof su_max_pos as Hm. pose proof su_max_eq as Em. pose proof (p2_pos w) as Hp.
  unfold su_shl, sval, sfit. fold MAX.
  destruct (N.eqb_spec a 0) as [->|Hnz].
  - split; [lia|]. destruct (N.eqb_spec 0 MAX); [lia|]. rewrite N.mul_0_l.
    destruct (N.ltb_spec 0 MAX); [reflexivity | lia].
  - assert (Ha2 : a < 2 ^ w) by lia.
    assert (Hs : N.size a <= w) by (apply size_le_iff; exact Ha2).
    pose proof (size_mul_p2 a k Hnz) as Sm. pose proof (size_le_iff (a * 2 ^ k) w) as Hiff.
    destruct (N.ltb_spec (w - N.size a) k) as [Hov|Hfit].
    + split; [lia|]. rewrite N.eqb_refl. destruct (N.eqb_spec a MAX); [reflexivity|].
      destruct (N.ltb_spec (a * 2 ^ k) MAX) as [Hlt|]; [|reflexivity].
      exfalso. assert (Hc : a * 2 ^ k < 2 ^ w) by lia. apply Hiff in Hc. lia.
    + assert (Hlt : a * 2 ^ k < 2 ^ w) by (apply Hiff; lia).
      rewrite (N.mod_small _ _ Hlt). split; [lia|].
      destruct (N.eqb_spec a MAX) as [Ea|Ea].
      * (* the marker with k = 0 *)
        assert (Ek : k = 0).
        { destruct (N.eq_dec k 0) as [|Hk]; [assumption|exfalso].
          subst a. pose proof (p2_le 1 k ltac:(lia)) as H2. change (2 ^ 1) with 2 in H2.
          assert (MAX * 2 <= MAX * 2 ^ k) by (apply N.mul_le_mono_l; exact H2).
          pose proof (p2_le 1 w Hw) as H3. change (2 ^ 1) with 2 in H3. lia. }
        subst k. change (2 ^ 0) with 1. rewrite N.mul_1_r. destruct (N.eqb_spec a MAX); [reflexivity | contradiction].
      * destruct (N.ltb_spec (a * 2 ^ k) MAX) as [Hl|Hg].
        -- destruct (N.eqb_spec (a * 2 ^ k) MAX); [lia | reflexivity].
        -- assert (E : a * 2 ^ k = MAX) by lia. rewrite E, N.eqb_refl. reflexivity.
Qed.

Theorem su_shr_spec : forall a k, a <= MAX -> k < w ->
  su_shr w a k <= MAX /\
  sval w (su_shr w a k) =
    match sval w a with
    | Some x => Some (x / 2 ^ k)
    | None => None
    end.
Proof.
  intros a k Ha Hk. unfold su_shr, sval. fold MAX. rewrite (N.mod_small k w Hk).
  destruct (N.eqb_spec a MAX) as [Ea|Ea].
  - split; [lia|]. rewrite N.eqb_refl. reflexivity.
  - pose proof (div_p2_le a k) as Hle.
    split; [lia|]. destruct (N.eqb_spec (a / 2 ^ k) MAX); [lia | reflexivity].
Qed.

Theorem su_sub_spec : forall a b, a <= MAX -> b <= a ->
  su_sub w a b <= MAX /\
  sval w (su_sub w a b) =
    match sval w a with
    | Some x => Some (x - b)
    | None => None
    end.
Proof.
  intros a b Ha Hb. pose proof su_max_eq as Em. pose proof (p2_pos w) as Hp.
  unfold su_sub, sval. fold MAX.
  destruct (N.eqb_spec a MAX) as [Ea|Ea].
  - split; [lia|]. rewrite N.eqb_refl. reflexivity.
  - assert (E : (a + 2 ^ w - b) mod 2 ^ w = a - b).
    { replace (a + 2 ^ w - b) with ((a - b) + 1 * 2 ^ w) by lia.
      rewrite N.mod_add by apply p2_nz. apply N.mod_small. lia. }
    rewrite E. split; [lia|]. destruct (N.eqb_spec (a - b) MAX); [lia | reflexivity].
Qed.

End W.

(** the widths of the code *)
Example ex_su :
  su_shl 64 3 63 = su_max 64 /\ su_shl 64 1 63 = 2 ^ 63 /\ su_shl 64 0 200 = 0 /\
  su_shl 128 5 126 = su_max 128 /\ su_add 64 (2 ^ 63) (2 ^ 63) = su_max 64 /\
  su_shr 64 (su_max 64) 1 = su_max 64 /\ su_shr 64 12 2 = 3 /\ su_sub 64 (su_max 64) 5 = su_max 64.
Proof. vm_compute. repeat split; reflexivity. Qed.
