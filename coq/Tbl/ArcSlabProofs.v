(** * ARCSLAB proofs, part 2: what the slab-level functions do ([add_item], [slot_retain],
      [slot_release], [slot_force]), the system invariant [YInv] (slab + the client's handles),
      its preservation by every operation, and the per-operation facts behind the property
      theorems (coq/Props/C05.v, theorems C05_arcslab_...). *)

From Coq Require Import List NArith ZArith Bool Arith Lia.
From OxiVerif Require Import Tbl.ArcSlab Tbl.ArcSlabProofsBase.
Import ListNotations.

Local Open Scope N_scope.

Arguments N.add : simpl never.
Arguments N.sub : simpl never.
Arguments N.mul : simpl never.
Arguments N.div : simpl never.

(** the item (payload, count) in slot [a], if any *)
Definition rd (pgs : list (list slot)) (a : addr) : option (N * N) :=
  match get_at pgs a with Some (Item p rc) => Some (p, rc) | _ => None end.

Definition item_of (v : slot) : option (N * N) :=
  match v with Item p rc => Some (p, rc) | Free _ => None end.

Lemma rd_set pgs a v b s :
  get_at pgs a = Some s ->
  rd (set_at pgs a v) b = if addr_eqb a b then item_of v else rd pgs b.
Proof.
  intros H. unfold rd. rewrite get_set. destruct (addr_eqb a b) eqn:E; [|reflexivity].
  apply addr_eqb_eq in E. subst b. rewrite H. cbn. destruct v; reflexivity.
Qed.

Lemma slot_read_rd sl a : slot_read sl a = rd (pl_pages (sl_pl sl)) a.
Proof. reflexivity. Qed.

Section Proofs.
Variable spp : nat.
Hypothesis spp_pos : (1 <= spp)%nat.
Local Set Default Proof Using "spp_pos".

Local Notation page_new_length := (ArcSlabProofsBase.page_new_length spp spp_pos).
Local Notation cntp_page_new := (ArcSlabProofsBase.cntp_page_new spp spp_pos).
Local Notation shape_get := (ArcSlabProofsBase.shape_get spp spp_pos).
Local Notation fresh_cons := (ArcSlabProofsBase.fresh_cons spp spp_pos).
Local Notation fresh_nil := (ArcSlabProofsBase.fresh_nil spp spp_pos).
Local Notation linked_page_new := (ArcSlabProofsBase.linked_page_new spp spp_pos).
Local Notation SI_intro := (ArcSlabProofsBase.SI_intro spp spp_pos).
Local Notation SI_set_item := (ArcSlabProofsBase.SI_set_item spp spp_pos).
Local Notation SI_push := (ArcSlabProofsBase.SI_push spp spp_pos).
Local Notation SI_pop := (ArcSlabProofsBase.SI_pop spp spp_pos).
Local Notation SI_extend := (ArcSlabProofsBase.SI_extend spp spp_pos).
Notation SInv := (SInv spp).
Notation chain := (chain spp).

Lemma rd_app_new pgs pno b : rd (pgs ++ [page_new spp pno]) b = rd pgs b.
Proof.
  unfold rd. destruct (Nat.lt_ge_cases (fst b) (length pgs)) as [H|H].
  - rewrite get_at_app_old by exact H. reflexivity.
  - assert (E : get_at pgs b = None).
    { unfold get_at. rewrite (proj2 (nth_error_None pgs (fst b)) H). reflexivity. }
    rewrite E. unfold get_at. rewrite nth_error_app2 by exact H.
    destruct (fst b - length pgs)%nat as [|[|k]]; cbn [nth_error]; try reflexivity.
    unfold page_new. rewrite nth_error_map.
    destruct (nth_error (seq 0 spp) (snd b)); reflexivity.
Qed.

Lemma chain_set pgs a v stack k : chain (set_at pgs a v) stack k = chain pgs stack k.
Proof. unfold ArcSlabProofsBase.chain. rewrite set_at_length. reflexivity. Qed.

(** ** `ArcSlab::add_item`: the address policy, with the representation made explicit *)

(** the representation after an allocation *)
Definition add_new_page (stack : list addr) (k : nat) : bool :=
  match tl stack with [] => (spp <=? pop_k stack k)%nat | _ :: _ => false end.
Definition add_stack (stack : list addr) (k : nat) : list addr :=
  if add_new_page stack k then [] else tl stack.
Definition add_k (stack : list addr) (k : nat) : nat :=
  if add_new_page stack k then 0%nat else pop_k stack k.

Lemma add_item_rep sl stack k p :
  SRep spp sl stack k ->
  exists sl',
    add_item spp sl p = Some (pop_addr (pl_pages (sl_pl sl)) stack k, sl') /\
    SRep spp sl' (add_stack stack k) (add_k stack k) /\
    pop_addr (pl_pages (sl_pl sl)) stack k = pl_free (sl_pl sl) /\
    length (pl_pages (sl_pl sl')) =
      (if add_new_page stack k then S (length (pl_pages (sl_pl sl))) else length (pl_pages (sl_pl sl))) /\
    slot_read sl (pl_free (sl_pl sl)) = None /\
    (forall b, slot_read sl' b = if addr_eqb (pl_free (sl_pl sl)) b then Some (p, 1) else slot_read sl b) /\
    sl_rc sl' = sl_rc sl /\ sl_items sl' = sl_items sl + 1.
Proof.
  intros (HSI & Hhd & Hit).
  destruct sl as [rc items [pgs free]]; cbn [sl_pl pl_pages pl_free sl_items sl_rc] in *.
  destruct (chain pgs stack k) as [|a rest] eqn:Hch; [discriminate|].
  cbn in Hhd. inversion Hhd; subst a.
  destruct (SI_pop pgs stack k free rest p HSI Hch) as (Hpa & Hg & Hrest & HSI').
  rewrite <- Hpa. unfold add_item, get_slot; cbn [sl_pl pl_pages pl_free sl_items sl_rc]. rewrite Hg.
  assert (Hrd : rd pgs free = None) by (unfold rd; rewrite Hg; reflexivity).
  assert (Hvf : (fst free < length pgs)%nat).
  { destruct HSI as (Hs & _). apply (shape_get pgs free Hs). congruence. }
  assert (Hk' : (pop_k stack k <= spp)%nat) by (destruct HSI' as (_ & Hk' & _); exact Hk').
  assert (Hnp : add_new_page stack k = true <-> rest = []).
  { unfold add_new_page. rewrite Hrest. unfold ArcSlabProofsBase.chain.
    destruct (tl stack) as [|s st]; cbn [app].
    - rewrite Nat.leb_le. split.
      + intros H. apply fresh_nil. exact H.
      + intros H. destruct (Nat.lt_ge_cases (pop_k stack k) spp) as [Hlt|Hge]; [|exact Hge].
        rewrite (fresh_cons _ _ Hlt) in H. discriminate.
    - split; discriminate. }
  destruct (hd_error rest) as [nx|] eqn:Hnx.
  - assert (Hb : add_new_page stack k = false).
    { apply not_true_is_false. intros Hb. apply Hnp in Hb. rewrite Hb in Hnx. discriminate Hnx. }
    unfold add_stack, add_k. rewrite Hb.
    eexists. split; [reflexivity|]. cbn [sl_pl pl_pages pl_free sl_items sl_rc].
    split; [|split; [reflexivity | split; [apply set_at_length | split; [exact Hrd | split; [|split; [reflexivity|reflexivity]]]]]].
    + split; [exact HSI'|]. cbn [sl_pl pl_pages pl_free sl_items]. split.
      * rewrite chain_set, <- Hrest. exact Hnx.
      * pose proof (cnt_set pgs free (Item p 1) _ Hg) as Hc. cbn in Hc. lia.
    + intros b. rewrite slot_read_rd; cbn [sl_pl pl_pages]. rewrite (rd_set _ _ _ _ _ Hg). reflexivity.
  - (* the last free slot: a new page *)
    assert (Hr : rest = []) by (destruct rest; [reflexivity | discriminate]).
    assert (Hb : add_new_page stack k = true) by (apply Hnp; exact Hr).
    unfold add_stack, add_k. rewrite Hb.
    eexists. split; [reflexivity|]. cbn [sl_pl pl_pages pl_free sl_items sl_rc].
    assert (Hst' : tl stack = [] /\ pop_k stack k = spp).
    { unfold add_new_page in Hb. destruct (tl stack); [|discriminate]. apply Nat.leb_le in Hb. split; [reflexivity | lia]. }
    destruct Hst' as [Hst' Hpk]. rewrite Hst', Hpk in HSI'.
    rewrite set_at_app by exact Hvf.
    pose proof (SI_extend _ HSI') as HSI2. rewrite set_at_length in HSI2.
    split; [|split; [reflexivity | split; [rewrite app_length, set_at_length; cbn; lia | split; [exact Hrd | split; [|split; [reflexivity|reflexivity]]]]]].
    + split; [exact HSI2|]. cbn [sl_pl pl_pages pl_free sl_items]. split.
      * unfold ArcSlabProofsBase.chain. cbn [app]. rewrite app_length, set_at_length. cbn [length].
        rewrite fresh_cons by lia. cbn. f_equal. f_equal. lia.
      * rewrite cnt_app, cntp_page_new.
        pose proof (cnt_set pgs free (Item p 1) _ Hg) as Hc. cbn in Hc. lia.
    + intros b. rewrite !slot_read_rd; cbn [sl_pl pl_pages].
      rewrite rd_app_new.
      rewrite (rd_set _ _ _ _ _ Hg). reflexivity.
Qed.

Lemma add_item_spec sl p :
  SInv sl ->
  exists a sl',
    add_item spp sl p = Some (a, sl') /\ SInv sl' /\
    a = pl_free (sl_pl sl) /\
    slot_read sl a = None /\
    (forall b, slot_read sl' b = if addr_eqb a b then Some (p, 1) else slot_read sl b) /\
    sl_rc sl' = sl_rc sl /\ sl_items sl' = sl_items sl + 1.
Proof.
  intros (stack & k & HR).
  destruct (add_item_rep sl stack k p HR) as (sl' & H1 & H2 & H3 & H4 & H5 & H6 & H7 & H8).
  exists (pl_free (sl_pl sl)), sl'. rewrite <- H3 at 1. split; [exact H1|].
  split; [eexists _, _; exact H2|]. auto.
Qed.

(** ** counter updates in place *)
Lemma set_item_rep sl stack k a p rc rc' :
  SRep spp sl stack k -> slot_read sl a = Some (p, rc) ->
  let sl' := mkSlab (sl_rc sl) (sl_items sl)
               (mkPL (set_at (pl_pages (sl_pl sl)) a (Item p rc')) (pl_free (sl_pl sl))) in
  SRep spp sl' stack k /\ (forall b, slot_read sl' b = if addr_eqb a b then Some (p, rc') else slot_read sl b).
Proof.
  intros (HSI & Hhd & Hit) Hr sl'.
  destruct sl as [src items [pgs free]]; cbn [sl_pl pl_pages pl_free sl_items sl_rc] in *.
  assert (Hg : get_at pgs a = Some (Item p rc)).
  { unfold slot_read in Hr; cbn in Hr. destruct (get_at pgs a) as [[|q r]|]; try discriminate.
    inversion Hr; subst; reflexivity. }
  split.
  - subst sl'; split; cbn [sl_pl pl_pages pl_free sl_items]; [|split].
    + eapply SI_set_item; eauto.
    + rewrite chain_set. exact Hhd.
    + pose proof (cnt_set pgs a (Item p rc') _ Hg) as Hc. cbn in Hc. lia.
  - intros b. subst sl'. rewrite !slot_read_rd; cbn [sl_pl pl_pages].
    rewrite (rd_set _ _ _ _ _ Hg). reflexivity.
Qed.

Lemma set_item_spec sl a p rc rc' :
  SInv sl -> slot_read sl a = Some (p, rc) ->
  let sl' := mkSlab (sl_rc sl) (sl_items sl)
               (mkPL (set_at (pl_pages (sl_pl sl)) a (Item p rc')) (pl_free (sl_pl sl))) in
  SInv sl' /\ (forall b, slot_read sl' b = if addr_eqb a b then Some (p, rc') else slot_read sl b).
Proof.
  intros (stack & k & HR) Hr sl'. destruct (set_item_rep sl stack k a p rc rc' HR Hr) as [H1 H2].
  split; [eexists _, _; exact H1 | exact H2].
Qed.

Lemma slot_retain_spec sl a p rc :
  SInv sl -> slot_read sl a = Some (p, rc) ->
  exists sl', slot_retain sl a = Some (sl', rc + 1) /\ SInv sl' /\
    (forall b, slot_read sl' b = if addr_eqb a b then Some (p, rc + 1) else slot_read sl b) /\
    sl_rc sl' = sl_rc sl /\ sl_items sl' = sl_items sl /\
    length (pl_pages (sl_pl sl')) = length (pl_pages (sl_pl sl)).
Proof.
  intros HI Hr. destruct (set_item_spec sl a p rc (rc + 1) HI Hr) as [H1 H2].
  unfold slot_retain. unfold slot_read in Hr.
  destruct (get_at (pl_pages (sl_pl sl)) a) as [[|q r]|]; try discriminate. inversion Hr; subst q r.
  eexists. split; [reflexivity|]. split; [exact H1|]. split; [exact H2|].
  cbn. rewrite set_at_length. auto.
Qed.

(** ** `Page::free_slot` on a slot that holds an item: push *)
Lemma free_slot_rep sl stack k a p rc :
  SRep spp sl stack k -> slot_read sl a = Some (p, rc) ->
  SRep spp (free_slot sl a) (a :: stack) k /\
  (forall b, slot_read (free_slot sl a) b = if addr_eqb a b then None else slot_read sl b) /\
  pl_free (sl_pl (free_slot sl a)) = a /\
  sl_items (free_slot sl a) = sl_items sl - 1 /\ 1 <= sl_items sl.
Proof.
  intros (HSI & Hhd & Hit) Hr.
  destruct sl as [src items [pgs free]]; cbn [sl_pl pl_pages pl_free sl_items sl_rc] in *.
  assert (Hg : get_at pgs a = Some (Item p rc)).
  { unfold slot_read in Hr; cbn in Hr. destruct (get_at pgs a) as [[|q r]|]; try discriminate.
    inversion Hr; subst; reflexivity. }
  pose proof (cnt_set pgs a (Free (Some free)) _ Hg) as Hc. cbn in Hc.
  unfold free_slot; cbn [sl_pl pl_pages pl_free sl_items sl_rc].
  split; [|split; [|split; [reflexivity | split; [reflexivity | lia]]]].
  - split; cbn [sl_pl pl_pages pl_free sl_items]; [|split].
    + rewrite <- Hhd. eapply SI_push; eauto.
    + reflexivity.
    + lia.
  - intros b. rewrite !slot_read_rd; cbn [sl_pl pl_pages]. rewrite (rd_set _ _ _ _ _ Hg). reflexivity.
Qed.

Lemma free_slot_spec sl a p rc :
  SInv sl -> slot_read sl a = Some (p, rc) ->
  SInv (free_slot sl a) /\
  (forall b, slot_read (free_slot sl a) b = if addr_eqb a b then None else slot_read sl b) /\
  pl_free (sl_pl (free_slot sl a)) = a /\
  sl_items (free_slot sl a) = sl_items sl - 1 /\ 1 <= sl_items sl.
Proof.
  intros (stack & k & HR) Hr. destruct (free_slot_rep sl stack k a p rc HR Hr) as (H1 & H2).
  split; [eexists _, _; exact H1 | exact H2].
Qed.

(** ** `Slot::release` / `release_move` *)
Lemma slot_release_spec sl a p rc :
  SInv sl -> slot_read sl a = Some (p, rc) ->
  exists sl', slot_release sl a = Some (sl', if rc =? 1 then Some p else None) /\ SInv sl' /\
    sl_rc sl' = sl_rc sl /\ length (pl_pages (sl_pl sl')) = length (pl_pages (sl_pl sl)) /\
    sl_items sl' = (if rc =? 1 then sl_items sl - 1 else sl_items sl) /\
    (rc = 1 -> 1 <= sl_items sl /\ pl_free (sl_pl sl') = a) /\
    (forall b, slot_read sl' b =
               if addr_eqb a b then (if rc =? 1 then None else Some (p, rc - 1)) else slot_read sl b).
Proof.
  intros HI Hr. unfold slot_release. pose proof Hr as Hr0. unfold slot_read in Hr0.
  destruct (get_at (pl_pages (sl_pl sl)) a) as [[|q r]|]; try discriminate. inversion Hr0; subst q r.
  destruct (N.eqb_spec rc 1) as [E|E].
  - destruct (free_slot_spec sl a p rc HI Hr) as (H1 & H2 & H3 & H4 & H5).
    eexists. split; [reflexivity|]. split; [exact H1|]. split; [reflexivity|].
    split; [cbn; apply set_at_length|]. auto.
  - destruct (set_item_spec sl a p rc (rc - 1) HI Hr) as [H1 H2].
    eexists. split; [reflexivity|]. split; [exact H1|]. split; [reflexivity|].
    split; [cbn; apply set_at_length|]. split; [reflexivity|]. split; [contradiction | exact H2].
Qed.

Lemma slot_force_spec sl a p rc :
  SInv sl -> slot_read sl a = Some (p, rc) ->
  exists sl', slot_force sl a = Some (sl', p) /\ SInv sl' /\ sl_rc sl' = sl_rc sl /\
    length (pl_pages (sl_pl sl')) = length (pl_pages (sl_pl sl)) /\
    sl_items sl' = sl_items sl - 1 /\ 1 <= sl_items sl /\ pl_free (sl_pl sl') = a /\
    (forall b, slot_read sl' b = if addr_eqb a b then None else slot_read sl b).
Proof.
  intros HI Hr. unfold slot_force. pose proof Hr as Hr0. unfold slot_read in Hr0.
  destruct (get_at (pl_pages (sl_pl sl)) a) as [[|q r]|]; try discriminate. inversion Hr0; subst q r.
  destruct (free_slot_spec sl a p rc HI Hr) as (H1 & H2 & H3 & H4 & H5).
  eexists. split; [reflexivity|]. split; [exact H1|]. split; [reflexivity|].
  split; [cbn; apply set_at_length|]. auto.
Qed.

Lemma SInv_rc sl rc : SInv sl -> SInv (mkSlab rc (sl_items sl) (sl_pl sl)).
Proof. intros H. exact H. Qed.

Lemma slab_new_rep : SRep spp (slab_new spp) [] 0.
Proof.
  unfold SRep. cbn [slab_new pagelist_new sl_pl pl_pages pl_free sl_items].
  assert (Hsh : shape spp [page_new spp 0]).
  { split; [congruence|]. constructor; [apply page_new_length | constructor]. }
  split; [|split].
  - apply (SI_intro _ 1%nat); [reflexivity | exact Hsh | lia | constructor | intros b [] | |].
    + cbn [app]. apply (linked_page_new [] 0). lia.
    + intros b _ Hu _. unfold used in Hu. cbn in Hu. lia.
  - unfold ArcSlabProofsBase.chain. cbn [app length]. rewrite fresh_cons by lia. reflexivity.
  - cbn. rewrite cntp_page_new. reflexivity.
Qed.

Lemma slab_new_inv : SInv (slab_new spp).
Proof. exists [], 0%nat. exact slab_new_rep. Qed.

End Proofs.

(** ** the client's handles *)

Definition hcount (a : addr) (hs : list (nat * handle)) : nat :=
  length (filter (fun e => addr_eqb (h_addr (snd e)) a) hs).

Definition ecount (hs : list (nat * handle)) : nat :=
  length (filter (fun e => is_ext (h_kind (snd e))) hs).

Arguments hcount : simpl never.
Arguments ecount : simpl never.

Lemma hcount_cons a h hd hs :
  hcount a ((h, hd) :: hs) = (b2n (addr_eqb (h_addr hd) a) + hcount a hs)%nat.
Proof. unfold hcount. cbn. destruct (addr_eqb (h_addr hd) a); reflexivity. Qed.

Lemma ecount_cons h hd hs :
  ecount ((h, hd) :: hs) = (b2n (is_ext (h_kind hd)) + ecount hs)%nat.
Proof. unfold ecount. cbn. destruct (is_ext (h_kind hd)); reflexivity. Qed.

Lemma hfind_In h hs hd : hfind h hs = Some hd -> In (h, hd) hs.
Proof.
  induction hs as [|[k v] r IH]; cbn; [discriminate|].
  destruct (Nat.eqb_spec k h) as [->|Hne]; [intros H; inversion H; auto | auto].
Qed.

Lemma hfind_None h hs : hfind h hs = None -> ~ In h (map fst hs).
Proof.
  induction hs as [|[k v] r IH]; cbn; [tauto|].
  destruct (Nat.eqb_spec k h) as [->|Hne]; [discriminate|]. intros H [E|E]; [congruence | apply IH; auto].
Qed.

Lemma hremove_In h hs k v : In (k, v) (hremove h hs) <-> In (k, v) hs /\ k <> h.
Proof.
  induction hs as [|[k' v'] r IH]; cbn; [tauto|].
  destruct (Nat.eqb_spec k' h) as [->|Hne].
  - rewrite IH. split; [tauto|]. intros [[E|E] Hk]; [inversion E; subst; congruence | tauto].
  - cbn. rewrite IH. split.
    + intros [E|E]; [inversion E; subst; auto | tauto].
    + tauto.
Qed.

Lemma hremove_keys h hs k : In k (map fst (hremove h hs)) -> In k (map fst hs) /\ k <> h.
Proof.
  rewrite !in_map_iff. intros [[k' v] [E H]]. cbn in E; subst k'. apply hremove_In in H.
  split; [exists (k, v); tauto | tauto].
Qed.

Lemma hremove_NoDup h hs : NoDup (map fst hs) -> NoDup (map fst (hremove h hs)).
Proof.
  induction hs as [|[k v] r IH]; cbn; [auto|]. intros H. inversion H; subst.
  destruct (Nat.eqb_spec k h); [auto|]. cbn. constructor; [|auto].
  intros Hin. apply hremove_keys in Hin. tauto.
Qed.

Lemma hremove_notin h hs : ~ In h (map fst hs) -> hremove h hs = hs.
Proof.
  induction hs as [|[k v] r IH]; cbn; [auto|]. intros H.
  destruct (Nat.eqb_spec k h); [tauto|]. f_equal. apply IH. tauto.
Qed.

Lemma hremove_filter (f : nat * handle -> bool) h hs hd :
  NoDup (map fst hs) -> hfind h hs = Some hd ->
  length (filter f hs) = (b2n (f (h, hd)) + length (filter f (hremove h hs)))%nat.
Proof.
  induction hs as [|[k v] r IH]; cbn [hfind hremove map filter]; [discriminate|]. intros Hnd Hf.
  inversion Hnd; subst. cbn [fst] in *.
  destruct (Nat.eqb_spec k h) as [->|Hne].
  - inversion Hf; subst v. rewrite hremove_notin by assumption. destruct (f (h, hd)); reflexivity.
  - cbn [filter]. specialize (IH H2 Hf). destruct (f (k, v)); cbn [length]; lia.
Qed.

Lemma hremove_hcount h hs hd a :
  NoDup (map fst hs) -> hfind h hs = Some hd ->
  hcount a hs = (b2n (addr_eqb (h_addr hd) a) + hcount a (hremove h hs))%nat.
Proof. apply (hremove_filter (fun e => addr_eqb (h_addr (snd e)) a)). Qed.

Lemma hremove_ecount h hs hd :
  NoDup (map fst hs) -> hfind h hs = Some hd ->
  ecount hs = (b2n (is_ext (h_kind hd)) + ecount (hremove h hs))%nat.
Proof. apply (hremove_filter (fun e => is_ext (h_kind (snd e)))). Qed.

Lemma hset_keys h v hs : map fst (hset h v hs) = map fst hs.
Proof.
  induction hs as [|[k x] r IH]; cbn; [reflexivity|]. destruct (k =? h)%nat; cbn; rewrite IH; reflexivity.
Qed.

Lemma hset_notin h v hs : ~ In h (map fst hs) -> hset h v hs = hs.
Proof.
  induction hs as [|[k x] r IH]; cbn; [auto|]. intros H.
  destruct (Nat.eqb_spec k h); [tauto|]. f_equal. apply IH. tauto.
Qed.

Lemma hset_hfind h v hs h' :
  hfind h' (hset h v hs) = if (h =? h')%nat then option_map (fun _ => v) (hfind h' hs) else hfind h' hs.
Proof.
  induction hs as [|[k x] r IH]; cbn [hset hfind]; [destruct (h =? h')%nat; reflexivity|].
  destruct (Nat.eqb_spec k h) as [->|Hne]; cbn [hfind].
  - destruct (Nat.eqb_spec h h') as [->|Hne']; [reflexivity|]. exact IH.
  - destruct (Nat.eqb_spec k h') as [->|Hne'].
    + destruct (Nat.eqb_spec h h') as [E|E]; [congruence | reflexivity].
    + exact IH.
Qed.

Lemma hset_filter (f : nat * handle -> bool) h v hs old :
  NoDup (map fst hs) -> hfind h hs = Some old ->
  (length (filter f (hset h v hs)) + b2n (f (h, old)) = length (filter f hs) + b2n (f (h, v)))%nat.
Proof.
  induction hs as [|[k x] r IH]; cbn [hfind hset map]; [discriminate|]. intros Hnd Hf.
  inversion Hnd; subst. cbn [fst] in *.
  destruct (Nat.eqb_spec k h) as [->|Hne]; cbn [filter].
  - inversion Hf; subst x. rewrite hset_notin by assumption.
    destruct (f (h, old)), (f (h, v)); cbn [length b2n]; lia.
  - specialize (IH H2 Hf). destruct (f (k, x)); cbn [length]; lia.
Qed.

Lemma hset_hcount h v hs old b :
  NoDup (map fst hs) -> hfind h hs = Some old -> h_addr v = h_addr old ->
  hcount b (hset h v hs) = hcount b hs.
Proof.
  intros Hnd Hf Ha.
  pose proof (hset_filter (fun e => addr_eqb (h_addr (snd e)) b) h v hs old Hnd Hf) as H.
  cbn [snd] in H. rewrite Ha in H. unfold hcount. lia.
Qed.

Lemma hset_ecount h v hs old :
  NoDup (map fst hs) -> hfind h hs = Some old ->
  (ecount (hset h v hs) + b2n (is_ext (h_kind old)) = ecount hs + b2n (is_ext (h_kind v)))%nat.
Proof. apply (hset_filter (fun e => is_ext (h_kind (snd e)))). Qed.

Lemma hcount_pos a hs : (1 <= hcount a hs)%nat <-> exists h hd, In (h, hd) hs /\ h_addr hd = a.
Proof.
  induction hs as [|[k v] r IH].
  - unfold hcount. cbn. split; [lia | intros (h & hd & [] & _)].
  - rewrite hcount_cons. destruct (addr_eqb (h_addr v) a) eqn:E.
    + apply addr_eqb_eq in E. split; [|cbn; lia]. intros _. exists k, v. cbn; auto.
    + cbn [b2n]. rewrite Nat.add_0_l, IH. split.
      * intros (h & hd & H1 & H2). exists h, hd. cbn; auto.
      * intros (h & hd & [H1|H1] & H2); [|eauto]. inversion H1; subst.
        apply addr_eqb_neq in E. congruence.
Qed.

Section Sys.
Variable spp : nat.
Hypothesis spp_pos : (1 <= spp)%nat.
Local Set Default Proof Using "spp_pos".

Notation SInv := (SInv spp).
Local Notation slot_release_spec := (slot_release_spec spp spp_pos).
Local Notation slab_new_inv := (slab_new_inv spp spp_pos).

(** ** the system invariant *)

(** the count stored in every item is the number of handle variables that refer to it, and it
    is not 0; no handle refers to anything else *)
Definition RC (sl : slab) (hs : list (nat * handle)) : Prop :=
  forall a, match slot_read sl a with
            | Some (p, rc) => rc = N.of_nat (hcount a hs) /\ (1 <= hcount a hs)%nat
            | None => hcount a hs = 0%nat
            end.

Definition YInv (y : sys) : Prop :=
  NoDup (map fst (y_hs y)) /\
  match y_slab y with
  | Alive sl =>
      SInv sl /\ RC sl (y_hs y) /\
      sl_rc sl = y_refs y + y_tok y + N.of_nat (ecount (y_hs y)) /\ 1 <= sl_rc sl
  | Destroyed n => y_refs y = 0 /\ y_tok y = 0 /\ ecount (y_hs y) = 0%nat /\ (y_hs y = [] -> n = 0)
  end.

Lemma init_inv : YInv (init spp).
Proof.
  split; [constructor|]. cbn. split; [apply slab_new_inv|]. split; [|split; [reflexivity | lia]].
  intros a. rewrite slot_read_rd. cbn [slab_new pagelist_new sl_pl pl_pages].
  pose proof (rd_app_new spp spp_pos [] 0 a) as E. cbn [app] in E. rewrite E.
  unfold rd, get_at. destruct (fst a); reflexivity.
Qed.

(** no handle: no item *)
Lemma no_handles_no_items sl : SInv sl -> RC sl [] -> sl_items sl = 0.
Proof.
  intros (stack & k & _ & _ & Hit) HRC. rewrite Hit.
  rewrite cnt_zero; [reflexivity|]. intros a p rc Hg. specialize (HRC a).
  unfold slot_read in HRC. rewrite Hg in HRC. unfold hcount in HRC. cbn in HRC. lia.
Qed.

(** the slab part of the end of an `ExtHandle` / `ArcSlabRef` / raw reference *)
Lemma finish_release_inv sl hs refs tok r log :
  NoDup (map fst hs) -> SInv sl -> RC sl hs ->
  sl_rc sl = refs + tok + N.of_nat (ecount hs) + 1 ->
  exists y' o, finish_release sl hs refs tok r log = Done y' o /\ YInv y' /\
    y_hs y' = hs /\ y_refs y' = refs /\ y_tok y' = tok /\ o_res o = r /\
    ((refs + tok + N.of_nat (ecount hs) = 0 /\ y_slab y' = Destroyed (sl_items sl) /\ o_log o = log ++ [EvData]) \/
     (refs + tok + N.of_nat (ecount hs) <> 0 /\
      y_slab y' = Alive (mkSlab (sl_rc sl - 1) (sl_items sl) (sl_pl sl)) /\ o_log o = log)).
Proof.
  intros Hnd HS HRC Hrc. unfold finish_release, slab_release.
  destruct (N.eqb_spec (sl_rc sl) 1) as [E|E].
  - eexists _, _. split; [reflexivity|]. cbn. split.
    + split; [exact Hnd|]. cbn. split; [lia|]. split; [lia|]. split; [lia|].
      intros ->. apply no_handles_no_items; assumption.
    + repeat (split; [reflexivity|]). left. split; [lia|]. auto.
  - eexists _, _. split; [reflexivity|]. cbn. split.
    + split; [exact Hnd|]. cbn. split; [exact HS|]. split; [exact HRC|]. lia.
    + repeat (split; [reflexivity|]). right. split; [lia|]. auto.
Qed.

(** RC after the count of one item changes together with the handle list *)
Lemma RC_update sl sl' hs hs' a (v : option (N * N)) :
  RC sl hs ->
  (forall b, slot_read sl' b = if addr_eqb a b then v else slot_read sl b) ->
  (forall b, a <> b -> hcount b hs' = hcount b hs) ->
  match v with
  | Some (p, rc) => rc = N.of_nat (hcount a hs') /\ (1 <= hcount a hs')%nat
  | None => hcount a hs' = 0%nat
  end ->
  RC sl' hs'.
Proof.
  intros HRC Hrd Hh Ha b. rewrite Hrd. destruct (addr_eqb a b) eqn:E.
  - apply addr_eqb_eq in E. subst b. exact Ha.
  - apply addr_eqb_neq in E. rewrite (Hh b E). apply HRC.
Qed.

Lemma RC_handle sl hs h hd :
  RC sl hs -> In (h, hd) hs -> exists p rc, slot_read sl (h_addr hd) = Some (p, rc) /\
                                            rc = N.of_nat (hcount (h_addr hd) hs) /\ (1 <= hcount (h_addr hd) hs)%nat.
Proof.
  intros HRC Hin. specialize (HRC (h_addr hd)).
  assert (Hp : (1 <= hcount (h_addr hd) hs)%nat) by (apply hcount_pos; eauto).
  destruct (slot_read sl (h_addr hd)) as [[p rc]|]; [eauto | lia].
Qed.

(** the item part of the end of a handle ([ODrop], [ODropWith], [OIntoInner]) *)
Lemma release_handle_spec sl hs h hd :
  NoDup (map fst hs) -> SInv sl -> RC sl hs -> hfind h hs = Some hd ->
  exists p rc sl1,
    slot_read sl (h_addr hd) = Some (p, rc) /\ rc = N.of_nat (hcount (h_addr hd) hs) /\
    slot_release sl (h_addr hd) = Some (sl1, if (hcount (h_addr hd) hs =? 1)%nat then Some p else None) /\
    SInv sl1 /\ RC sl1 (hremove h hs) /\ sl_rc sl1 = sl_rc sl /\
    length (pl_pages (sl_pl sl1)) = length (pl_pages (sl_pl sl)) /\
    sl_items sl1 = (if (hcount (h_addr hd) hs =? 1)%nat then sl_items sl - 1 else sl_items sl) /\
    ((hcount (h_addr hd) hs =? 1)%nat = true -> 1 <= sl_items sl /\ pl_free (sl_pl sl1) = h_addr hd) /\
    (forall b, slot_read sl1 b =
               if addr_eqb (h_addr hd) b
               then (if (hcount (h_addr hd) hs =? 1)%nat then None else Some (p, rc - 1))
               else slot_read sl b).
Proof.
  intros Hnd HS HRC Hf. pose proof (hfind_In _ _ _ Hf) as Hin.
  destruct (RC_handle _ _ _ _ HRC Hin) as (p & rc & Hr & Hrc & Hpos).
  destruct (slot_release_spec sl _ p rc HS Hr) as (sl1 & Hrel & HS1 & Hrc1 & Hlen & Hit & Hfr & Hrd).
  assert (El : (rc =? 1) = (hcount (h_addr hd) hs =? 1)%nat).
  { destruct (Nat.eqb_spec (hcount (h_addr hd) hs) 1) as [E|E]; [apply N.eqb_eq | apply N.eqb_neq]; lia. }
  rewrite El in Hrel, Hit, Hrd.
  exists p, rc, sl1. split; [exact Hr|]. split; [exact Hrc|]. split; [exact Hrel|]. split; [exact HS1|].
  split; [|split; [exact Hrc1 | split; [exact Hlen | split; [exact Hit | split; [|exact Hrd]]]]].
  - pose proof (hremove_hcount h hs hd (h_addr hd) Hnd Hf) as Hcnt.
    rewrite addr_eqb_refl in Hcnt. cbn [b2n] in Hcnt.
    eapply RC_update; [exact HRC | exact Hrd | |].
    + intros b Hb. pose proof (hremove_hcount h hs hd b Hnd Hf) as H.
      apply addr_eqb_neq in Hb. rewrite Hb in H. cbn in H. lia.
    + destruct (Nat.eqb_spec (hcount (h_addr hd) hs) 1) as [E|E]; cbn; lia.
  - intros E. apply Nat.eqb_eq in E. apply Hfr. lia.
Qed.

End Sys.
