(** * ARCSLAB proofs, part 1: pages as lists of lists, the free chain, the slab invariant [SInv]
      and what every slab-level function does to it. *)

From Coq Require Import List NArith ZArith Bool Arith Lia FinFun.
From OxiVerif Require Import Base.ListFacts Tbl.ArcSlab.
Import ListNotations.

Arguments N.add : simpl never.
Arguments N.sub : simpl never.
Arguments N.mul : simpl never.
Arguments N.div : simpl never.

(** ** addresses *)

Lemma addr_eqb_eq a b : addr_eqb a b = true <-> a = b.
Proof.
  unfold addr_eqb. destruct a as [p i], b as [q j]; cbn [fst snd].
  rewrite andb_true_iff, !Nat.eqb_eq. split; [intros [-> ->]; reflexivity | intros H; inversion H; auto].
Qed.

Lemma addr_eqb_refl a : addr_eqb a a = true.
Proof. apply addr_eqb_eq. reflexivity. Qed.

Lemma addr_eqb_neq a b : addr_eqb a b = false <-> a <> b.
Proof.
  split.
  - intros H E. apply addr_eqb_eq in E. congruence.
  - intros H. destruct (addr_eqb a b) eqn:E; [apply addr_eqb_eq in E; contradiction | reflexivity].
Qed.

Lemma addr_eqb_sym a b : addr_eqb a b = addr_eqb b a.
Proof.
  destruct (addr_eqb a b) eqn:E.
  - apply addr_eqb_eq in E. subst. symmetry. apply addr_eqb_refl.
  - apply addr_eqb_neq in E. symmetry. apply addr_eqb_neq. auto.
Qed.

Lemma addr_dec (a b : addr) : {a = b} + {a <> b}.
Proof. decide equality; apply Nat.eq_dec. Qed.

(** ** [upd], [get_at], [set_at] *)

Lemma upd_length {A} n (f : A -> A) l : length (upd n f l) = length l.
Proof. revert n. induction l as [|x l IH]; intros [|n]; cbn; auto. Qed.

Lemma nth_error_upd {A} n (f : A -> A) l m :
  nth_error (upd n f l) m = if (n =? m)%nat then option_map f (nth_error l m) else nth_error l m.
Proof.
  revert n m. induction l as [|x l IH]; intros n m.
  - cbn. destruct m; cbn; destruct (n =? _)%nat; reflexivity.
  - destruct n as [|n], m as [|m]; cbn; try reflexivity. apply IH.
Qed.

Lemma get_set pgs a v b :
  get_at (set_at pgs a v) b =
  if addr_eqb a b then option_map (fun _ => v) (get_at pgs b) else get_at pgs b.
Proof.
  unfold get_at, set_at, addr_eqb. rewrite nth_error_upd.
  destruct (fst a =? fst b)%nat eqn:E1; cbn [andb].
  - destruct (nth_error pgs (fst b)) as [pg|]; cbn [option_map].
    + rewrite nth_error_upd. reflexivity.
    + destruct (snd a =? snd b)%nat; reflexivity.
  - reflexivity.
Qed.

Lemma get_set_same pgs a v s : get_at pgs a = Some s -> get_at (set_at pgs a v) a = Some v.
Proof. intros H. rewrite get_set, addr_eqb_refl, H. reflexivity. Qed.

Lemma get_set_other pgs a v b : a <> b -> get_at (set_at pgs a v) b = get_at pgs b.
Proof. intros H. rewrite get_set. apply addr_eqb_neq in H. rewrite H. reflexivity. Qed.

Lemma set_at_length pgs a v : length (set_at pgs a v) = length pgs.
Proof. apply upd_length. Qed.

Lemma Forall_upd {A} (P : A -> Prop) n f l :
  Forall P l -> (forall x, P x -> P (f x)) -> Forall P (upd n f l).
Proof.
  intros H Hf. revert n. induction H as [|x l Hx Hl IH]; intros [|n]; cbn; constructor; auto.
Qed.

Lemma set_at_app pgs pg a v :
  (fst a < length pgs)%nat -> set_at (pgs ++ [pg]) a v = set_at pgs a v ++ [pg].
Proof.
  unfold set_at. generalize (upd (snd a) (fun _ : slot => v)) as f. generalize (fst a) as n.
  induction pgs as [|x l IH]; intros n f H; cbn in *; [lia|].
  destruct n; cbn; [reflexivity|]. f_equal. apply IH. lia.
Qed.

Lemma get_at_app_old pgs pg a : (fst a < length pgs)%nat -> get_at (pgs ++ [pg]) a = get_at pgs a.
Proof. intros H. unfold get_at. rewrite nth_error_app1 by exact H. reflexivity. Qed.

Lemma get_at_app_new pgs pg i : get_at (pgs ++ [pg]) (length pgs, i) = nth_error pg i.
Proof.
  unfold get_at; cbn [fst snd]. rewrite nth_error_app2 by lia. rewrite Nat.sub_diag. reflexivity.
Qed.

Lemma get_at_app_beyond pgs pg a : (length pgs < fst a)%nat -> get_at (pgs ++ [pg]) a = None.
Proof.
  intros H. unfold get_at.
  assert (E : nth_error (pgs ++ [pg]) (fst a) = None).
  { apply nth_error_None. rewrite app_length. cbn. lia. }
  rewrite E. reflexivity.
Qed.

(** ** counting the items *)

Definition is_item (s : slot) : bool := match s with Item _ _ => true | Free _ => false end.
Definition b2n (b : bool) : nat := if b then 1 else 0.

Fixpoint cntp (l : list slot) : nat :=
  match l with [] => 0 | s :: r => b2n (is_item s) + cntp r end.

(** number of slots (of all pages) that hold an item *)
Fixpoint cnt (pgs : list (list slot)) : nat :=
  match pgs with [] => 0 | pg :: r => cntp pg + cnt r end.

Lemma cntp_upd l n v old :
  nth_error l n = Some old ->
  (cntp (upd n (fun _ => v) l) + b2n (is_item old) = cntp l + b2n (is_item v))%nat.
Proof.
  revert n. induction l as [|s l IH]; intros [|n] H; cbn in H; try discriminate.
  - inversion H; subst. cbn. lia.
  - cbn. specialize (IH _ H). lia.
Qed.

Lemma cnt_set pgs a v old :
  get_at pgs a = Some old ->
  (cnt (set_at pgs a v) + b2n (is_item old) = cnt pgs + b2n (is_item v))%nat.
Proof.
  unfold get_at, set_at. generalize (fst a) as n. induction pgs as [|pg l IH]; intros [|n] H; cbn in H; try discriminate.
  - cbn. pose proof (cntp_upd _ _ v _ H). lia.
  - cbn. specialize (IH _ H). lia.
Qed.

Lemma cnt_app pgs pg : cnt (pgs ++ [pg]) = (cnt pgs + cntp pg)%nat.
Proof. induction pgs as [|x l IH]; cbn; [lia | rewrite IH; lia]. Qed.

Lemma cntp_zero pg :
  (forall i p rc, nth_error pg i <> Some (Item p rc)) -> cntp pg = 0%nat.
Proof.
  induction pg as [|s r IH]; intros H; [reflexivity|]. cbn.
  rewrite IH by (intros i p rc; apply (H (S i))).
  destruct s as [nx|p rc]; [reflexivity|]. exfalso. apply (H 0%nat p rc). reflexivity.
Qed.

Lemma cnt_zero pgs :
  (forall a p rc, get_at pgs a <> Some (Item p rc)) -> cnt pgs = 0%nat.
Proof.
  induction pgs as [|pg r IH]; intros H; [reflexivity|]. cbn.
  rewrite IH by (intros [pn i] p rc; apply (H (S pn, i))).
  rewrite cntp_zero; [reflexivity|]. intros i p rc. apply (H (0%nat, i)).
Qed.

Section Proofs.
Variable spp : nat.
Hypothesis spp_pos : (1 <= spp)%nat.
Local Set Default Proof Using "spp_pos".

(** ** a fresh page *)

Lemma page_new_length pno : length (page_new spp pno) = spp.
Proof. unfold page_new. rewrite map_length, seq_length. reflexivity. Qed.

Lemma page_new_nth pno i :
  (i < spp)%nat ->
  nth_error (page_new spp pno) i = Some (Free (if (S i <? spp)%nat then Some (pno, S i) else None)).
Proof.
  intros H. unfold page_new.
  rewrite nth_error_map, nth_error_nth' with (d := 0%nat) by (rewrite seq_length; exact H).
  rewrite seq_nth by exact H. reflexivity.
Qed.

Lemma cntp_page_new pno : cntp (page_new spp pno) = 0%nat.
Proof.
  unfold page_new. generalize (seq 0 spp) as l. induction l as [|x l IH]; cbn; auto.
Qed.

(** ** shape, validity *)

Definition shape (pgs : list (list slot)) : Prop :=
  pgs <> [] /\ Forall (fun pg => length pg = spp) pgs.

Definition valid (pgs : list (list slot)) (a : addr) : Prop :=
  (fst a < length pgs)%nat /\ (snd a < spp)%nat.

Lemma shape_get pgs a : shape pgs -> (valid pgs a <-> get_at pgs a <> None).
Proof.
  intros [_ HF]. unfold valid, get_at. split.
  - intros [H1 H2]. destruct (nth_error pgs (fst a)) as [pg|] eqn:E.
    + rewrite Forall_forall in HF. specialize (HF pg (nth_error_In _ _ E)).
      apply nth_error_Some. lia.
    + apply nth_error_None in E. lia.
  - destruct (nth_error pgs (fst a)) as [pg|] eqn:E; [|congruence].
    intros H. split.
    + apply nth_error_Some. congruence.
    + rewrite Forall_forall in HF. specialize (HF pg (nth_error_In _ _ E)).
      apply nth_error_Some in H. lia.
Qed.

Lemma shape_set pgs a v : shape pgs -> shape (set_at pgs a v).
Proof.
  intros [H1 H2]. split.
  - intros E. apply H1. apply length_zero_iff_nil. rewrite <- (set_at_length pgs a v), E. reflexivity.
  - unfold set_at. apply Forall_upd; [exact H2|]. intros pg Hpg. rewrite upd_length. exact Hpg.
Qed.

Lemma valid_set pgs a v b : valid (set_at pgs a v) b <-> valid pgs b.
Proof. unfold valid. rewrite set_at_length. tauto. Qed.

Lemma shape_app pgs : shape pgs -> shape (pgs ++ [page_new spp (length pgs)]).
Proof.
  intros [H1 H2]. split.
  - destruct pgs; cbn; congruence.
  - apply Forall_app. split; [exact H2|]. constructor; [apply page_new_length | constructor].
Qed.

(** ** the free chain *)

Fixpoint linked (pgs : list (list slot)) (ch : list addr) : Prop :=
  match ch with
  | [] => True
  | a :: r => get_at pgs a = Some (Free (hd_error r)) /\ linked pgs r
  end.

Lemma linked_free pgs ch a : linked pgs ch -> In a ch -> exists nx, get_at pgs a = Some (Free nx).
Proof.
  induction ch as [|b r IH]; cbn; [tauto|]. intros [H1 H2] [->|H]; eauto.
Qed.

Lemma linked_set pgs ch a v : linked pgs ch -> ~ In a ch -> linked (set_at pgs a v) ch.
Proof.
  induction ch as [|b r IH]; cbn; [tauto|]. intros [H1 H2] Hn. split.
  - rewrite get_set_other by (intros E; apply Hn; auto). exact H1.
  - apply IH; [exact H2 | tauto].
Qed.

Lemma linked_app_old pgs pg ch :
  linked pgs ch -> (forall a, In a ch -> (fst a < length pgs)%nat) -> linked (pgs ++ [pg]) ch.
Proof.
  induction ch as [|b r IH]; cbn; [tauto|]. intros [H1 H2] Hv. split.
  - rewrite get_at_app_old by (apply Hv; auto). exact H1.
  - apply IH; auto.
Qed.

(** the never-used slots of the newest page ([P] pages, the first [k] slots of the last page
    have been handed out at least once): (P-1, k), ..., (P-1, spp-1) *)
Definition fresh (P k : nat) : list addr := map (pair (P - 1)%nat) (seq k (spp - k)).

(** the slots that have been handed out at least once *)
Definition used (P k : nat) (a : addr) : Prop :=
  (fst a < P - 1)%nat \/ (fst a = P - 1 /\ snd a < k)%nat.

Lemma fresh_In P k a : In a (fresh P k) <-> (fst a = P - 1 /\ k <= snd a < spp)%nat.
Proof.
  unfold fresh. rewrite in_map_iff. split.
  - intros [i [<- Hi]]. apply in_seq in Hi. cbn. lia.
  - intros [H1 H2]. exists (snd a). split; [destruct a; cbn in *; subst; reflexivity | apply in_seq; lia].
Qed.

Lemma fresh_cons P k : (k < spp)%nat -> fresh P k = (P - 1, k)%nat :: fresh P (S k).
Proof.
  intros H. unfold fresh. replace (spp - k)%nat with (S (spp - S k)) by lia. reflexivity.
Qed.

Lemma fresh_nil P k : (spp <= k)%nat -> fresh P k = [].
Proof. intros H. unfold fresh. replace (spp - k)%nat with 0%nat by lia. reflexivity. Qed.

Lemma fresh_NoDup P k : NoDup (fresh P k).
Proof.
  unfold fresh. apply Injective_map_NoDup; [|apply seq_NoDup].
  intros x y H. inversion H. reflexivity.
Qed.

Lemma valid_used_or_fresh pgs k a :
  pgs <> [] -> (k <= spp)%nat -> valid pgs a -> used (length pgs) k a \/ In a (fresh (length pgs) k).
Proof.
  intros Hne Hk [H1 H2]. rewrite fresh_In. unfold used.
  assert (length pgs <> 0)%nat by (destruct pgs; cbn; congruence). lia.
Qed.

Lemma used_not_fresh P k a : used P k a -> ~ In a (fresh P k).
Proof. unfold used. rewrite fresh_In. lia. Qed.

Lemma linked_page_new pgs k :
  (k <= spp)%nat -> linked (pgs ++ [page_new spp (length pgs)]) (fresh (S (length pgs)) k).
Proof.
  intros Hk. remember (spp - k)%nat as n eqn:En. revert k Hk En.
  induction n as [|n IH]; intros k Hk En.
  - rewrite fresh_nil by lia. exact I.
  - rewrite fresh_cons by lia. cbn [linked]. split.
    + replace (S (length pgs) - 1)%nat with (length pgs) by lia.
      rewrite get_at_app_new, page_new_nth by lia.
      destruct (S k <? spp)%nat eqn:E.
      * apply Nat.ltb_lt in E. rewrite fresh_cons by lia. cbn.
        replace (length pgs - 0)%nat with (length pgs) by lia. reflexivity.
      * apply Nat.ltb_ge in E. rewrite fresh_nil by lia. reflexivity.
    + apply IH; lia.
Qed.

(** ** the invariant of the page list

    [stack] = the slots that have been handed out and freed again, most recently freed first;
    the free chain is [stack ++ fresh P k]: a slot that has never been used is only taken when
    no recycled slot is left *)
Definition SI (pgs : list (list slot)) (stack : list addr) (k : nat) : Prop :=
  shape pgs /\ (k <= spp)%nat /\ NoDup stack /\
  (forall a, In a stack -> valid pgs a /\ used (length pgs) k a) /\
  linked pgs (stack ++ fresh (length pgs) k) /\
  (forall a, valid pgs a -> used (length pgs) k a -> ~ In a stack ->
     exists p rc, get_at pgs a = Some (Item p rc)).

Lemma SI_intro pgs P stack k :
  length pgs = P ->
  shape pgs -> (k <= spp)%nat -> NoDup stack ->
  (forall a, In a stack -> valid pgs a /\ used P k a) ->
  linked pgs (stack ++ fresh P k) ->
  (forall a, valid pgs a -> used P k a -> ~ In a stack ->
     exists p rc, get_at pgs a = Some (Item p rc)) ->
  SI pgs stack k.
Proof. intros <-. unfold SI. tauto. Qed.

Definition chain (pgs : list (list slot)) (stack : list addr) (k : nat) : list addr :=
  stack ++ fresh (length pgs) k.

(** the slab is represented by (recycled stack, number of used slots of the newest page) *)
Definition SRep (sl : slab) (stack : list addr) (k : nat) : Prop :=
  SI (pl_pages (sl_pl sl)) stack k /\
  hd_error (chain (pl_pages (sl_pl sl)) stack k) = Some (pl_free (sl_pl sl)) /\
  sl_items sl = N.of_nat (cnt (pl_pages (sl_pl sl))).

Definition SInv (sl : slab) : Prop := exists stack k, SRep sl stack k.

Lemma SI_chain_NoDup pgs stack k : SI pgs stack k -> NoDup (chain pgs stack k).
Proof.
  intros (Hs & Hk & Hnd & Hst & Hl & Hit). unfold chain.
  apply NoDup_app_intro; [exact Hnd | apply fresh_NoDup |].
  intros a Ha Hf. apply (used_not_fresh _ _ _ (proj2 (Hst a Ha)) Hf).
Qed.

Lemma SI_item_not_chain pgs stack k a p rc :
  SI pgs stack k -> get_at pgs a = Some (Item p rc) -> ~ In a (chain pgs stack k).
Proof.
  intros (Hs & Hk & Hnd & Hst & Hl & Hit) Hg Hin.
  destruct (linked_free _ _ _ Hl Hin) as [nx E]. congruence.
Qed.

Lemma SI_item_valid_used pgs stack k a p rc :
  SI pgs stack k -> get_at pgs a = Some (Item p rc) ->
  valid pgs a /\ used (length pgs) k a /\ ~ In a stack.
Proof.
  intros HSI Hg. pose proof (SI_item_not_chain _ _ _ _ _ _ HSI Hg) as Hn.
  destruct HSI as (Hs & Hk & Hnd & Hst & Hl & Hit).
  assert (Hv : valid pgs a) by (apply shape_get; [exact Hs | congruence]).
  unfold chain in Hn. rewrite in_app_iff in Hn.
  destruct (valid_used_or_fresh pgs k a (proj1 Hs) Hk Hv) as [Hu|Hf]; [|tauto]. tauto.
Qed.

(** every slot of every page is exactly one of: an item, a recycled free slot, a never-used
    free slot *)
Lemma SI_partition pgs stack k a :
  SI pgs stack k -> valid pgs a ->
  ((exists p rc, get_at pgs a = Some (Item p rc)) /\ ~ In a stack /\ ~ In a (fresh (length pgs) k)) \/
  ((exists nx, get_at pgs a = Some (Free nx)) /\ In a stack /\ ~ In a (fresh (length pgs) k)) \/
  ((exists nx, get_at pgs a = Some (Free nx)) /\ ~ In a stack /\ In a (fresh (length pgs) k)).
Proof.
  intros HSI Hv. pose proof HSI as (Hs & Hk & Hnd & Hst & Hl & Hit).
  destruct (valid_used_or_fresh pgs k a (proj1 Hs) Hk Hv) as [Hu|Hf].
  - destruct (in_dec addr_dec a stack) as [Hin|Hnin].
    + right; left. split; [|split; [exact Hin | apply used_not_fresh; exact Hu]].
      apply (linked_free _ _ _ Hl). apply in_or_app. auto.
    + left. split; [apply Hit; assumption | split; [exact Hnin | apply used_not_fresh; exact Hu]].
  - right; right. split; [|split; [|exact Hf]].
    + apply (linked_free _ _ _ Hl). apply in_or_app. auto.
    + intros Hin. apply (used_not_fresh _ _ _ (proj2 (Hst a Hin)) Hf).
Qed.

(** *** rewriting an item in place (counter updates) *)
Lemma SI_set_item pgs stack k a p rc p' rc' :
  SI pgs stack k -> get_at pgs a = Some (Item p rc) -> SI (set_at pgs a (Item p' rc')) stack k.
Proof.
  intros HSI Hg. destruct (SI_item_valid_used _ _ _ _ _ _ HSI Hg) as (Hv & Hu & Hns).
  pose proof (SI_item_not_chain _ _ _ _ _ _ HSI Hg) as Hnc.
  destruct HSI as (Hs & Hk & Hnd & Hst & Hl & Hit).
  apply (SI_intro _ (length pgs)); [apply set_at_length | apply shape_set; exact Hs | | | | | ].
  - exact Hk.
  - exact Hnd.
  - intros b Hb. split; [apply valid_set|]; apply Hst; assumption.
  - apply linked_set; assumption.
  - intros b Hvb Hub Hnb. apply (proj1 (valid_set _ _ _ _)) in Hvb.
    destruct (addr_dec a b) as [->|Hne].
    + rewrite (get_set_same _ _ _ _ Hg). eauto.
    + rewrite get_set_other by exact Hne. apply Hit; assumption.
Qed.

(** *** push: `Page::free_slot` *)
Lemma SI_push pgs stack k a p rc :
  SI pgs stack k -> get_at pgs a = Some (Item p rc) ->
  SI (set_at pgs a (Free (hd_error (chain pgs stack k)))) (a :: stack) k.
Proof.
  intros HSI Hg. destruct (SI_item_valid_used _ _ _ _ _ _ HSI Hg) as (Hv & Hu & Hns).
  pose proof (SI_item_not_chain _ _ _ _ _ _ HSI Hg) as Hnc.
  destruct HSI as (Hs & Hk & Hnd & Hst & Hl & Hit).
  apply (SI_intro _ (length pgs)); [apply set_at_length | apply shape_set; exact Hs | | | | | ].
  - exact Hk.
  - constructor; assumption.
  - intros b H. split.
    + apply valid_set. destruct H as [<-|H]; [exact Hv | apply Hst; exact H].
    + destruct H as [<-|H]; [exact Hu | apply Hst; exact H].
  - cbn [app linked]. split.
    + rewrite (get_set_same _ _ _ _ Hg). reflexivity.
    + apply linked_set; assumption.
  - intros b Hvb Hub Hnb. apply (proj1 (valid_set _ _ _ _)) in Hvb. cbn in Hnb.
    rewrite get_set_other by tauto. apply Hit; tauto.
Qed.

(** *** pop: the head of the chain gets an item; the head is the most recently freed slot if
    there is one, else the first never-used slot *)
Definition pop_addr (pgs : list (list slot)) (stack : list addr) (k : nat) : addr :=
  match stack with s :: _ => s | [] => (length pgs - 1, k)%nat end.
Definition pop_k (stack : list addr) (k : nat) : nat :=
  match stack with _ :: _ => k | [] => S k end.

Lemma SI_pop pgs stack k a rest p :
  SI pgs stack k -> chain pgs stack k = a :: rest ->
  a = pop_addr pgs stack k /\
  get_at pgs a = Some (Free (hd_error rest)) /\
  rest = chain pgs (tl stack) (pop_k stack k) /\
  SI (set_at pgs a (Item p 1)) (tl stack) (pop_k stack k).
Proof.
  intros HSI Hch. pose proof (SI_chain_NoDup _ _ _ HSI) as Hnd'.
  destruct HSI as (Hs & Hk & Hnd & Hst & Hl & Hit).
  unfold chain in *. rewrite Hch in Hl, Hnd'. cbn [linked] in Hl. destruct Hl as [Hga Hl].
  inversion Hnd' as [|x l Hna Hndr]; subst x l.
  destruct stack as [|s st]; cbn [tl pop_k pop_addr].
  - (* a never-used slot *)
    cbn [app] in Hch. destruct (Nat.lt_ge_cases k spp) as [Hlt|Hge]; [|rewrite fresh_nil in Hch by lia; discriminate].
    rewrite fresh_cons in Hch by exact Hlt. inversion Hch; subst a rest.
    split; [reflexivity|]. split; [exact Hga|]. split; [reflexivity|].
    apply (SI_intro _ (length pgs)); [apply set_at_length | apply shape_set; exact Hs | | | | | ].
    + lia.
    + constructor.
    + intros b [].
    + cbn [app]. apply linked_set; assumption.
    + intros b Hvb Hub _. apply (proj1 (valid_set _ _ _ _)) in Hvb.
      destruct (addr_dec (length pgs - 1, k)%nat b) as [<-|Hne].
      * rewrite (get_set_same _ _ _ _ Hga). eauto.
      * rewrite get_set_other by exact Hne. apply Hit; [exact Hvb | | tauto].
        unfold used in *. destruct b as [bp bi]; cbn [fst snd] in *.
        assert (~ (bp = (length pgs - 1)%nat /\ bi = k)) by (intros [-> ->]; apply Hne; reflexivity). lia.
  - (* the most recently freed slot *)
    cbn [app] in Hch. inversion Hch; subst s rest.
    split; [reflexivity|]. split; [exact Hga|]. split; [reflexivity|].
    inversion Hnd as [|x l Hnast Hndst]; subst x l.
    destruct (Hst a (or_introl eq_refl)) as [Hva Hua].
    apply (SI_intro _ (length pgs)); [apply set_at_length | apply shape_set; exact Hs | | | | | ].
    + exact Hk.
    + exact Hndst.
    + intros b Hb. split; [apply valid_set|]; apply Hst; right; assumption.
    + apply linked_set; assumption.
    + intros b Hvb Hub Hnb. apply (proj1 (valid_set _ _ _ _)) in Hvb.
      destruct (addr_dec a b) as [<-|Hne].
      * rewrite (get_set_same _ _ _ _ Hga). eauto.
      * rewrite get_set_other by exact Hne. apply Hit; [exact Hvb | exact Hub |].
        cbn. tauto.
Qed.

(** *** a new page: all slots of all pages used -> the next page, nothing of it used *)
Lemma SI_extend pgs :
  SI pgs [] spp -> SI (pgs ++ [page_new spp (length pgs)]) [] 0.
Proof.
  intros (Hs & Hk & Hnd & Hst & Hl & Hit).
  assert (Hlen : length (pgs ++ [page_new spp (length pgs)]) = S (length pgs)) by (rewrite app_length; cbn; lia).
  assert (Hne : (length pgs <> 0)%nat) by (destruct Hs as [H _]; destruct pgs; cbn; congruence).
  apply (SI_intro _ (S (length pgs))); [exact Hlen | apply shape_app; exact Hs | | | | | ].
  - lia.
  - constructor.
  - intros b [].
  - cbn [app]. apply linked_page_new. lia.
  - intros b [Hb1 Hb2] Hub _. rewrite Hlen in Hb1. unfold used in Hub.
    rewrite get_at_app_old by lia. apply Hit; [split; [lia | exact Hb2] | | tauto].
    unfold used. lia.
Qed.

End Proofs.
