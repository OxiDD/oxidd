(** * ARCSLAB proofs, part 3: every client operation ([step]) on a state that satisfies the
      system invariant: never [Broken], the invariant again, and what exactly it returns / logs
      / changes. *)

From Coq Require Import List NArith ZArith Bool Arith Lia.
From OxiVerif Require Import Tbl.ArcSlab Tbl.ArcSlabProofsBase Tbl.ArcSlabProofs.
Import ListNotations.

Local Open Scope N_scope.

Arguments N.add : simpl never.
Arguments N.sub : simpl never.
Arguments N.mul : simpl never.
Arguments N.div : simpl never.
Arguments hcount : simpl never.
Arguments ecount : simpl never.

(** references that keep the slab alive: `ArcSlabRef`s + raw references + `ExtHandle`s *)
Definition slab_count (y : sys) : N := y_refs y + y_tok y + N.of_nat (ecount (y_hs y)).

(** the items that are in their slots (after the destruction: were, and are never dropped) *)
Definition live (y : sys) : N :=
  match y_slab y with Alive sl => sl_items sl | Destroyed n => n end.

Section Proofs.
Variable spp : nat.
Hypothesis spp_pos : (1 <= spp)%nat.
Local Set Default Proof Using "spp_pos".

Local Notation RC_update := (ArcSlabProofs.RC_update spp spp_pos).
Local Notation RC_handle := (ArcSlabProofs.RC_handle spp spp_pos).
Local Notation finish_release_inv := (ArcSlabProofs.finish_release_inv spp spp_pos).
Local Notation release_handle_spec := (ArcSlabProofs.release_handle_spec spp spp_pos).
Local Notation init_inv := (ArcSlabProofs.init_inv spp spp_pos).
Local Notation add_item_spec := (ArcSlabProofs.add_item_spec spp spp_pos).
Local Notation slot_retain_spec := (ArcSlabProofs.slot_retain_spec spp spp_pos).
Local Notation slot_force_spec := (ArcSlabProofs.slot_force_spec spp spp_pos).
Notation SInv := (SInv spp).
Notation YInv := (YInv spp).
Notation step := (step spp).

(** ** the end of a handle: the slab part *)
Lemma finish_handle_inv k sl hs refs tok r log :
  NoDup (map fst hs) -> SInv sl -> RC sl hs ->
  sl_rc sl = refs + tok + N.of_nat (ecount hs) + N.of_nat (b2n (is_ext k)) -> 1 <= sl_rc sl ->
  exists y' o, finish_handle k sl hs refs tok r log = Done y' o /\ YInv y' /\
    y_hs y' = hs /\ y_refs y' = refs /\ y_tok y' = tok /\ o_res o = r /\
    ((is_ext k = true /\ refs + tok + N.of_nat (ecount hs) = 0 /\
      y_slab y' = Destroyed (sl_items sl) /\ o_log o = log ++ [EvData]) \/
     (~ (is_ext k = true /\ refs + tok + N.of_nat (ecount hs) = 0) /\
      exists sl', y_slab y' = Alive sl' /\ sl_items sl' = sl_items sl /\ sl_pl sl' = sl_pl sl /\
                  o_log o = log)).
Proof.
  intros Hnd HS HRC Hrc Hpos. destruct k; cbn [finish_handle is_ext b2n] in *.
  - eexists _, _. split; [reflexivity|]. cbn. split.
    + split; [exact Hnd|]. cbn. split; [exact HS|]. split; [exact HRC|]. lia.
    + repeat (split; [reflexivity|]). right. split; [intros [? _]; discriminate|].
      eexists. repeat (split; [reflexivity|]). reflexivity.
  - destruct (finish_release_inv sl hs refs tok r log Hnd HS HRC) as (y' & o & Hf & HY & H1 & H2 & H3 & H4 & Hc).
    { cbn in Hrc. lia. }
    exists y', o. split; [exact Hf|]. split; [exact HY|]. repeat (split; [assumption|]).
    destruct Hc as [(E & Hd & Hl)|(E & Hd & Hl)].
    + left. auto.
    + right. split; [tauto|]. eexists. split; [exact Hd|]. cbn. auto.
Qed.

(** what [ODrop] / [ODropWith] / [OIntoInner] have in common *)
Definition end_res (o : op) (d : option N) : res :=
  match o with
  | OIntoInner _ => match d with Some p => RSome p | None => RNone end
  | _ => RUnit
  end.

Definition end_log (o : op) (d : option N) : list ev :=
  match o, d with
  | ODrop _, Some p => [EvDrop p]
  | ODropWith _, Some p => [EvFn p; EvDrop p]
  | _, _ => []
  end.

Definition is_end (o : op) (h : nat) : Prop := o = ODrop h \/ o = ODropWith h \/ o = OIntoInner h.

Lemma step_end_unfold y sl o h :
  y_slab y = Alive sl -> is_end o h ->
  step y o =
  match hfind h (y_hs y) with
  | None => Invalid
  | Some hd =>
    match slot_release sl (h_addr hd) with
    | Some (sl1, d) => finish_handle (h_kind hd) sl1 (hremove h (y_hs y)) (y_refs y) (y_tok y) (end_res o d) (end_log o d)
    | None => Broken
    end
  end.
Proof using.
  intros Ha [-> | [-> | ->]]; unfold ArcSlab.step; rewrite Ha;
    destruct (hfind h (y_hs y)) as [hd|]; try reflexivity;
    destruct (slot_release sl (h_addr hd)) as [[sl1 [p|]]|]; reflexivity.
Qed.

(** *** [ODrop], [ODropWith], [OIntoInner]: the item leaves its slot exactly when the handle is the
    last one that refers to it; an `ExtHandle` then gives up its slab reference, which destroys
    the slab exactly when it is the last one *)
Theorem step_end_spec y sl o h hd :
  YInv y -> y_slab y = Alive sl -> is_end o h -> hfind h (y_hs y) = Some hd ->
  exists p rc y' out,
    slot_read sl (h_addr hd) = Some (p, rc) /\ rc = N.of_nat (hcount (h_addr hd) (y_hs y)) /\
    step y o = Done y' out /\ YInv y' /\
    y_hs y' = hremove h (y_hs y) /\ y_refs y' = y_refs y /\ y_tok y' = y_tok y /\
    let last := (hcount (h_addr hd) (y_hs y) =? 1)%nat in
    let d := if last then Some p else None in
    let dies := is_ext (h_kind hd) && (slab_count y =? 1) in
    o_res out = end_res o d /\
    o_log out = end_log o d ++ (if dies then [EvData] else []) /\
    live y' = (if last then live y - 1 else live y) /\ (last = true -> 1 <= live y) /\
    if dies then y_slab y' = Destroyed (live y')
    else exists sl', y_slab y' = Alive sl' /\
           length (pl_pages (sl_pl sl')) = length (pl_pages (sl_pl sl)) /\
           (forall b, slot_read sl' b =
                      if addr_eqb (h_addr hd) b then (if last then None else Some (p, rc - 1))
                      else slot_read sl b) /\
           (last = true -> pl_free (sl_pl sl') = h_addr hd).
Proof.
  intros (Hnd & HY) Ha He Hf. rewrite Ha in HY. destruct HY as (HS & HRC & Hrc & Hpos).
  destruct (release_handle_spec sl (y_hs y) h hd Hnd HS HRC Hf)
    as (p & rc & sl1 & Hr & Hrceq & Hrel & HS1 & HRC1 & Hrc1 & Hlen & Hit1 & Hfr1 & Hrd1).
  set (last := (hcount (h_addr hd) (y_hs y) =? 1)%nat) in *.
  pose proof (hremove_ecount h (y_hs y) hd Hnd Hf) as Hec.
  pose proof (hremove_NoDup h (y_hs y) Hnd) as Hnd1.
  destruct (finish_handle_inv (h_kind hd) sl1 (hremove h (y_hs y)) (y_refs y) (y_tok y)
              (end_res o (if last then Some p else None)) (end_log o (if last then Some p else None))
              Hnd1 HS1 HRC1) as (y' & out & Hfin & HY' & E1 & E2 & E3 & E4 & Hc).
  { rewrite Hrc1, Hrc. lia. }
  { rewrite Hrc1. exact Hpos. }
  exists p, rc, y', out. split; [exact Hr|]. split; [exact Hrceq|].
  split; [rewrite (step_end_unfold y sl o h Ha He), Hf, Hrel; exact Hfin|].
  split; [exact HY'|]. split; [exact E1|]. split; [exact E2|]. split; [exact E3|].
  cbv zeta. fold last. split; [exact E4|].
  assert (Hdies : is_ext (h_kind hd) && (slab_count y =? 1) = true <->
                  (is_ext (h_kind hd) = true /\ y_refs y + y_tok y + N.of_nat (ecount (hremove h (y_hs y))) = 0)).
  { unfold slab_count. rewrite andb_true_iff, N.eqb_eq. destruct (is_ext (h_kind hd)); cbn [b2n] in Hec; lia. }
  unfold live at 2 3 4. rewrite Ha.
  destruct Hc as [(Ek & Ez & Hd' & Hlog)|(Hn & sl' & Hd' & Hi' & Hpl' & Hlog)].
  - assert (Hb : is_ext (h_kind hd) && (slab_count y =? 1) = true) by (apply Hdies; auto).
    rewrite Hb. split; [exact Hlog|]. unfold live. rewrite Hd'.
    split; [exact Hit1|]. split; [apply Hfr1 | reflexivity].
  - assert (Hb : is_ext (h_kind hd) && (slab_count y =? 1) = false).
    { apply not_true_is_false. intros Eb. apply Hdies in Eb. tauto. }
    rewrite Hb. split; [rewrite app_nil_r; exact Hlog|]. unfold live. rewrite Hd'.
    split; [rewrite Hi'; exact Hit1|]. split; [apply Hfr1|].
    exists sl'. split; [reflexivity|]. rewrite Hpl'. split; [exact Hlen|]. split; [|apply Hfr1].
    intros b. unfold slot_read. rewrite Hpl'. apply Hrd1.
Qed.

(** *** [OAdd] *)
Theorem step_add_spec y sl h p :
  YInv y -> y_slab y = Alive sl -> hfind h (y_hs y) = None ->
  exists a sl',
    step y (OAdd h p) = Done (mkSys (Alive sl') ((h, mkH a KInt) :: y_hs y) (y_refs y) (y_tok y)) (mkOut (RAddr a) []) /\
    YInv (mkSys (Alive sl') ((h, mkH a KInt) :: y_hs y) (y_refs y) (y_tok y)) /\
    a = pl_free (sl_pl sl) /\ slot_read sl a = None /\ hcount a (y_hs y) = 0%nat /\
    (forall b, slot_read sl' b = if addr_eqb a b then Some (p, 1) else slot_read sl b) /\
    sl_items sl' = sl_items sl + 1.
Proof.
  intros (Hnd & HY) Ha Hf. rewrite Ha in HY. destruct HY as (HS & HRC & Hrc & Hpos).
  destruct (add_item_spec sl p HS) as (a & sl' & Hadd & HS' & Hfree & Hrd0 & Hrd & Hrc' & Hit).
  exists a, sl'. unfold ArcSlab.step. rewrite Ha, Hf, Hadd. split; [reflexivity|].
  assert (H0 : hcount a (y_hs y) = 0%nat) by (specialize (HRC a); rewrite Hrd0 in HRC; exact HRC).
  split; [|auto 10].
  split; cbn [y_hs y_slab y_refs y_tok map fst].
  - constructor; [apply hfind_None; exact Hf | exact Hnd].
  - split; [exact HS'|]. split; [|rewrite ecount_cons; cbn; lia].
    eapply RC_update; [exact HRC | exact Hrd | |].
    + intros b Hb. rewrite hcount_cons. cbn [h_addr]. apply addr_eqb_neq in Hb. rewrite Hb. reflexivity.
    + rewrite hcount_cons. cbn [h_addr]. rewrite addr_eqb_refl, H0. cbn. split; [reflexivity | lia].
Qed.

(** *** [OClone] *)
Theorem step_clone_spec y sl h h2 hd :
  YInv y -> y_slab y = Alive sl -> hfind h (y_hs y) = Some hd -> hfind h2 (y_hs y) = None ->
  exists p rc sl',
    slot_read sl (h_addr hd) = Some (p, rc) /\
    step y (OClone h h2) = Done (mkSys (Alive sl') ((h2, hd) :: y_hs y) (y_refs y) (y_tok y)) (mkOut (RNum (rc + 1)) []) /\
    YInv (mkSys (Alive sl') ((h2, hd) :: y_hs y) (y_refs y) (y_tok y)) /\
    (forall b, slot_read sl' b = if addr_eqb (h_addr hd) b then Some (p, rc + 1) else slot_read sl b) /\
    sl_items sl' = sl_items sl /\ length (pl_pages (sl_pl sl')) = length (pl_pages (sl_pl sl)).
Proof.
  intros (Hnd & HY) Ha Hf Hf2. rewrite Ha in HY. destruct HY as (HS & HRC & Hrc & Hpos).
  pose proof (hfind_In _ _ _ Hf) as Hin.
  destruct (RC_handle _ _ _ _ HRC Hin) as (p & rc & Hr & Hrceq & Hp).
  destruct (slot_retain_spec sl _ p rc HS Hr) as (sl1 & Hret & HS1 & Hrd & Hrc1 & Hit1 & Hlen1).
  exists p, rc, (if is_ext (h_kind hd) then slab_retain sl1 else sl1).
  split; [exact Hr|]. unfold ArcSlab.step. rewrite Ha, Hf, Hf2, Hret. split; [reflexivity|].
  assert (Hrd' : forall b, slot_read (if is_ext (h_kind hd) then slab_retain sl1 else sl1) b =
                           if addr_eqb (h_addr hd) b then Some (p, rc + 1) else slot_read sl b).
  { intros b. rewrite <- Hrd. destruct (is_ext (h_kind hd)); reflexivity. }
  split; [|split; [exact Hrd'|]].
  - split; cbn [y_hs y_slab y_refs y_tok map fst].
    + constructor; [apply hfind_None; exact Hf2 | exact Hnd].
    + split; [destruct (is_ext (h_kind hd)); exact HS1|]. split.
      * eapply RC_update; [exact HRC | exact Hrd' | |].
        -- intros b Hb. rewrite hcount_cons. apply addr_eqb_neq in Hb. rewrite Hb. reflexivity.
        -- rewrite hcount_cons, addr_eqb_refl. cbn [b2n]. split; lia.
      * rewrite ecount_cons. destruct (is_ext (h_kind hd)); cbn [b2n slab_retain sl_rc]; lia.
  - destruct (is_ext (h_kind hd)); cbn; auto.
Qed.

(** *** [OForce] *)
Theorem step_force_spec y sl h a :
  YInv y -> y_slab y = Alive sl -> hfind h (y_hs y) = Some (mkH a KInt) -> hcount a (y_hs y) = 1%nat ->
  exists p sl',
    slot_read sl a = Some (p, 1) /\
    step y (OForce h) = Done (mkSys (Alive sl') (hremove h (y_hs y)) (y_refs y) (y_tok y)) (mkOut (RSome p) []) /\
    YInv (mkSys (Alive sl') (hremove h (y_hs y)) (y_refs y) (y_tok y)) /\
    (forall b, slot_read sl' b = if addr_eqb a b then None else slot_read sl b) /\
    sl_items sl' = sl_items sl - 1 /\ 1 <= sl_items sl /\ pl_free (sl_pl sl') = a /\
    length (pl_pages (sl_pl sl')) = length (pl_pages (sl_pl sl)).
Proof.
  intros (Hnd & HY) Ha Hf H1. rewrite Ha in HY. destruct HY as (HS & HRC & Hrc & Hpos).
  pose proof (hfind_In _ _ _ Hf) as Hin.
  destruct (RC_handle _ _ _ _ HRC Hin) as (p & rc & Hr & Hrceq & Hp). cbn [h_addr] in *.
  assert (E1 : rc = 1) by lia. clear Hrceq. subst rc.
  destruct (slot_force_spec sl a p 1 HS Hr) as (sl1 & Hfo & HS1 & Hrc1 & Hlen & Hit & Hit1 & Hfree & Hrd).
  exists p, sl1. split; [exact Hr|]. unfold ArcSlab.step. rewrite Ha, Hf, Hr. cbn [N.eqb Pos.eqb]. rewrite Hfo.
  split; [reflexivity|]. split; [|auto 10].
  pose proof (hremove_hcount h (y_hs y) _ a Hnd Hf) as Hcnt. cbn [h_addr] in Hcnt. rewrite addr_eqb_refl in Hcnt. cbn [b2n] in Hcnt.
  pose proof (hremove_ecount h (y_hs y) _ Hnd Hf) as Hec. cbn [h_kind is_ext b2n] in Hec.
  split; cbn [y_hs y_slab y_refs y_tok].
  - apply hremove_NoDup; exact Hnd.
  - split; [exact HS1|]. split; [|lia].
    eapply RC_update; [exact HRC | exact Hrd | | cbn; lia].
    intros b Hb. pose proof (hremove_hcount h (y_hs y) _ b Hnd Hf) as H. cbn [h_addr] in H.
    apply addr_eqb_neq in Hb. rewrite Hb in H. cbn in H. lia.
Qed.

(** *** the slab's own references *)
Lemma step_release_like_spec y sl refs tok :
  YInv y -> y_slab y = Alive sl -> refs + tok + 1 = y_refs y + y_tok y ->
  exists y' out, finish_release sl (y_hs y) refs tok RUnit [] = Done y' out /\ YInv y' /\
    y_hs y' = y_hs y /\ y_refs y' = refs /\ y_tok y' = tok /\ o_res out = RUnit /\ live y' = live y /\
    ((slab_count y = 1 /\ y_slab y' = Destroyed (sl_items sl) /\ o_log out = [EvData]) \/
     (slab_count y <> 1 /\ y_slab y' = Alive (mkSlab (sl_rc sl - 1) (sl_items sl) (sl_pl sl)) /\ o_log out = [])).
Proof.
  intros (Hnd & HY) Ha Hcnt. rewrite Ha in HY. destruct HY as (HS & HRC & Hrc & Hpos).
  destruct (finish_release_inv sl (y_hs y) refs tok RUnit [] Hnd HS HRC) as (y' & o & Hf & HY' & H1 & H2 & H3 & H4 & Hc).
  { lia. }
  exists y', o. split; [exact Hf|]. split; [exact HY'|]. repeat (split; [assumption|]).
  unfold slab_count, live. rewrite Ha.
  destruct Hc as [(E & Hd & Hl)|(E & Hd & Hl)]; rewrite Hd.
  - split; [reflexivity|]. left. split; [lia|]. auto.
  - split; [reflexivity|]. right. split; [lia|]. auto.
Qed.

(** ** which operations a state accepts *)
Lemma step_cases y sl o :
  YInv y -> y_slab y = Alive sl ->
  step y o = Invalid \/
  (exists h hd, is_end o h /\ hfind h (y_hs y) = Some hd) \/
  (exists h p, o = OAdd h p /\ hfind h (y_hs y) = None) \/
  (exists h h2 hd, o = OClone h h2 /\ hfind h (y_hs y) = Some hd /\ hfind h2 (y_hs y) = None) \/
  (exists h a, o = OForce h /\ hfind h (y_hs y) = Some (mkH a KInt) /\ hcount a (y_hs y) = 1%nat) \/
  (exists h a, o = OExt h /\ hfind h (y_hs y) = Some (mkH a KInt) /\
     step y o = Done (mkSys (Alive (slab_retain sl)) (hset h (mkH a KExt) (y_hs y)) (y_refs y) (y_tok y))
                     (mkOut RUnit [])) \/
  (exists h hd p rc, o = OGet h /\ hfind h (y_hs y) = Some hd /\ slot_read sl (h_addr hd) = Some (p, rc) /\
     step y o = Done y (mkOut (RVal p rc) [])) \/
  (o = ONum /\ step y o = Done y (mkOut (RNum (sl_items sl)) [])) \/
  (exists refs tok, (o = ORetain \/ o = ORefClone) /\ refs + tok = y_refs y + y_tok y + 1 /\
     step y o = Done (mkSys (Alive (slab_retain sl)) (y_hs y) refs tok) (mkOut RUnit [])) \/
  (exists refs tok, (o = ORelease \/ o = ORefDrop) /\ refs + tok + 1 = y_refs y + y_tok y /\
     step y o = finish_release sl (y_hs y) refs tok RUnit []).
Proof.
  intros HY Ha. pose proof HY as (_ & HY0). rewrite Ha in HY0. destruct HY0 as (_ & HRC & _).
  assert (Hend : forall h, is_end o h ->
            step y o = Invalid \/ exists h hd, is_end o h /\ hfind h (y_hs y) = Some hd).
  { intros h He. destruct (hfind h (y_hs y)) as [hd|] eqn:Hf; [right; eauto|].
    left. rewrite (step_end_unfold y sl o h Ha He), Hf. reflexivity. }
  destruct o as [h p|h h2|h|h|h|h|h|h| | | | | ].
  - destruct (hfind h (y_hs y)) as [hd|] eqn:Hf; [left; unfold ArcSlab.step; rewrite Ha, Hf; reflexivity|].
    right; right; left. eauto.
  - destruct (hfind h (y_hs y)) as [hd|] eqn:Hf; [destruct (hfind h2 (y_hs y)) as [hd2|] eqn:Hf2|];
      try (left; unfold ArcSlab.step; rewrite Ha, Hf, ?Hf2; reflexivity).
    do 3 right; left. exists h, h2, hd. auto.
  - destruct (Hend h) as [E|E]; [left; reflexivity | left; exact E | right; left; exact E].
  - destruct (Hend h) as [E|E]; [right; right; reflexivity | left; exact E | right; left; exact E].
  - destruct (Hend h) as [E|E]; [right; left; reflexivity | left; exact E | right; left; exact E].
  - destruct (hfind h (y_hs y)) as [[a [|]]|] eqn:Hf; try (left; unfold ArcSlab.step; rewrite Ha, Hf; reflexivity).
    destruct (RC_handle _ _ _ _ HRC (hfind_In _ _ _ Hf)) as (p & rc & Hr & Hrceq & _). cbn [h_addr] in *.
    destruct (N.eqb_spec rc 1) as [E|E].
    + do 4 right; left. exists h, a. split; [reflexivity|]. split; [exact Hf | lia].
    + left. unfold ArcSlab.step. rewrite Ha, Hf, Hr. apply N.eqb_neq in E. rewrite E. reflexivity.
  - destruct (hfind h (y_hs y)) as [[a [|]]|] eqn:Hf; try (left; unfold ArcSlab.step; rewrite Ha, Hf; reflexivity).
    do 5 right; left. exists h, a. split; [reflexivity|]. split; [exact Hf|].
    unfold ArcSlab.step. rewrite Ha, Hf. reflexivity.
  - destruct (hfind h (y_hs y)) as [hd|] eqn:Hf; [|left; unfold ArcSlab.step; rewrite Ha, Hf; reflexivity].
    destruct (RC_handle _ _ _ _ HRC (hfind_In _ _ _ Hf)) as (p & rc & Hr & _).
    do 6 right; left. exists h, hd, p, rc. split; [reflexivity|]. split; [exact Hf|]. split; [exact Hr|].
    unfold ArcSlab.step. rewrite Ha, Hf, Hr. reflexivity.
  - do 7 right; left. split; [reflexivity|]. unfold ArcSlab.step. rewrite Ha. reflexivity.
  - do 8 right; left. exists (y_refs y), (y_tok y + 1). split; [left; reflexivity|]. split; [lia|].
    unfold ArcSlab.step. rewrite Ha. reflexivity.
  - unfold ArcSlab.step. rewrite Ha. destruct (N.eqb_spec (y_tok y) 0) as [E|E]; [left; reflexivity|].
    do 9 right. exists (y_refs y), (y_tok y - 1). split; [left; reflexivity|]. split; [lia | reflexivity].
  - unfold ArcSlab.step. rewrite Ha. destruct (N.eqb_spec (y_refs y) 0) as [E|E]; [left; reflexivity|].
    do 8 right; left. exists (y_refs y + 1), (y_tok y). split; [right; reflexivity|]. split; [lia | reflexivity].
  - unfold ArcSlab.step. rewrite Ha. destruct (N.eqb_spec (y_refs y) 0) as [E|E]; [left; reflexivity|].
    do 9 right. exists (y_refs y - 1), (y_tok y). split; [right; reflexivity|]. split; [lia | reflexivity].
Qed.

(** ** every operation: the invariant is kept, nothing is ever [Broken] *)
Theorem step_inv y o :
  YInv y -> match step y o with Done y' _ => YInv y' | Broken => False | _ => True end.
Proof.
  intros HY. destruct (y_slab y) as [sl|n] eqn:Ha; [|unfold ArcSlab.step; rewrite Ha; exact I].
  destruct (step_cases y sl o HY Ha)
    as [E|[(h & hd & He & Hf)|[(h & p & -> & Hf)|[(h & h2 & hd & -> & Hf & Hf2)|[(h & a & -> & Hf & H1)|
        [(h & a & -> & Hf & E)|[(h & hd & p & rc & -> & _ & _ & E)|[(-> & E)|
        [(refs & tok & _ & Hc & E)|(refs & tok & _ & Hc & E)]]]]]]]]]; try rewrite E.
  - exact I.
  - destruct (step_end_spec y sl o h hd HY Ha He Hf) as (p & rc & y' & out & _ & _ & Hst & HY' & _).
    rewrite Hst. exact HY'.
  - destruct (step_add_spec y sl h p HY Ha Hf) as (a & sl' & Hst & HY' & _). rewrite Hst. exact HY'.
  - destruct (step_clone_spec y sl h h2 hd HY Ha Hf Hf2) as (p & rc & sl' & _ & Hst & HY' & _).
    rewrite Hst. exact HY'.
  - destruct (step_force_spec y sl h a HY Ha Hf H1) as (p & sl' & _ & Hst & HY' & _). rewrite Hst. exact HY'.
  - (* OExt *)
    destruct HY as (Hnd & HY0). rewrite Ha in HY0. destruct HY0 as (HS & HRC & Hrc & Hpos).
    pose proof (hset_ecount h (mkH a KExt) (y_hs y) _ Hnd Hf) as Hec. cbn [h_kind is_ext b2n] in Hec.
    split; cbn [y_hs y_slab y_refs y_tok].
    + rewrite hset_keys. exact Hnd.
    + split; [exact HS|]. split; [|cbn [slab_retain sl_rc]; lia].
      intros b. specialize (HRC b).
      rewrite (hset_hcount h (mkH a KExt) (y_hs y) _ b Hnd Hf eq_refl). exact HRC.
  - exact HY.
  - exact HY.
  - destruct HY as (Hnd & HY0). rewrite Ha in HY0. destruct HY0 as (HS & HRC & Hrc & Hpos).
    split; [exact Hnd|]. cbn. split; [exact HS|]. split; [exact HRC|]. lia.
  - destruct (step_release_like_spec y sl refs tok HY Ha Hc) as (y' & out & Hst & HY' & _).
    rewrite Hst. exact HY'.
Qed.

(** ** whole scripts *)
Theorem run_inv ops : forall y, YInv y -> exists yf outs, run spp y ops = Some (yf, outs) /\ YInv yf.
Proof.
  induction ops as [|o r IH]; intros y HY; cbn [run].
  - eauto.
  - pose proof (step_inv y o HY) as H. destruct (step y o) as [y' out| | |] eqn:E.
    + destruct (IH y' H) as (yf & l & -> & HYf). eauto.
    + destruct (IH y HY) as (yf & l & -> & HYf). eauto.
    + destruct (IH y HY) as (yf & l & -> & HYf). eauto.
    + contradiction.
Qed.

Corollary run_init_inv ops : exists yf outs, run spp (init spp) ops = Some (yf, outs) /\ YInv yf.
Proof. apply run_inv. apply init_inv. Qed.

End Proofs.
