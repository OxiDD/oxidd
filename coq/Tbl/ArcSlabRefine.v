(** * ARCSLAB proofs, part 5: the slab refines the abstract node store (Tbl/RcStore.v)

    Abstraction: ids = slot addresses, map = the items in their slots, handle variables as they
    are (the kind of a handle, the slab's own count, pages and the free list are not visible).
    Every item-level operation of the model is one [astep] with the same result; the other
    operations change nothing of the abstract state.  A reference store whose ids are never
    re-used ([rstore]) refines the same abstract store; therefore both return the same results
    for every script ([arcslab_equiv_reference]). *)

From Coq Require Import List NArith ZArith Bool Arith Lia.
From OxiVerif Require Import Tbl.ArcSlab Tbl.ArcSlabProofsBase Tbl.ArcSlabProofs Tbl.ArcSlabProofsStep
  Tbl.ArcSlabThms Tbl.RcStore.
Import ListNotations.

Local Open Scope N_scope.

Arguments N.add : simpl never.
Arguments N.sub : simpl never.
Arguments hcount : simpl never.
Arguments ecount : simpl never.

(** ** the abstraction *)

Definition abs_hs (hs : list (nat * handle)) : list (nat * addr) :=
  map (fun e => (fst e, h_addr (snd e))) hs.

Definition abs (sl : slab) (hs : list (nat * handle)) : astate addr := mkA (slot_read sl) (abs_hs hs).

Definition aproj (o : op) : option aop :=
  match o with
  | OAdd h p => Some (AAdd h p)
  | OClone h h2 => Some (AClone h h2)
  | ODrop h | ODropWith h | OIntoInner h | OForce h => Some (AEnd h)
  | OGet h => Some (AGet h)
  | _ => None
  end.

(** the abstract result, read off the concrete output *)
Definition ares_of (o : op) (out : out) : ares :=
  match o with
  | OAdd _ _ => ARAdded
  | OClone _ _ => match o_res out with RNum rc => ARCount rc | _ => ARKept end
  | ODrop _ => match o_log out with EvDrop p :: _ => ARGone p | _ => ARKept end
  | ODropWith _ => match o_log out with EvFn p :: _ => ARGone p | _ => ARKept end
  | OIntoInner _ | OForce _ => match o_res out with RSome p => ARGone p | _ => ARKept end
  | OGet _ => match o_res out with RVal p rc => ARVal p rc | _ => ARKept end
  | _ => ARKept
  end.

Lemma abs_hs_cons k v r : abs_hs ((k, v) :: r) = (k, h_addr v) :: abs_hs r.
Proof. reflexivity. Qed.

Lemma abs_hs_keys hs : map fst (abs_hs hs) = map fst hs.
Proof. unfold abs_hs. rewrite map_map. reflexivity. Qed.

Lemma abs_hs_find h hs : afind h (abs_hs hs) = option_map h_addr (hfind h hs).
Proof.
  induction hs as [|[k v] r IH]; [reflexivity|]. rewrite abs_hs_cons. cbn [afind hfind].
  destruct (k =? h)%nat; [reflexivity | exact IH].
Qed.

Lemma abs_hs_remove h hs : aremove h (abs_hs hs) = abs_hs (hremove h hs).
Proof.
  induction hs as [|[k v] r IH]; [reflexivity|]. rewrite abs_hs_cons. cbn [aremove hremove].
  destruct (k =? h)%nat; [exact IH|]. rewrite abs_hs_cons, IH. reflexivity.
Qed.

Lemma abs_hs_count a hs : acount addr addr_eqb a (abs_hs hs) = hcount a hs.
Proof.
  induction hs as [|[k v] r IH]; [reflexivity|]. rewrite abs_hs_cons, acount_cons, hcount_cons, IH.
  destruct (addr_eqb (h_addr v) a); reflexivity.
Qed.

Lemma abs_hs_set h v hs old :
  NoDup (map fst hs) -> hfind h hs = Some old -> h_addr v = h_addr old -> abs_hs (hset h v hs) = abs_hs hs.
Proof.
  induction hs as [|[k x] r IH]; cbn [hfind hset map]; [discriminate|]. intros Hnd Hf Ha.
  inversion Hnd; subst. cbn [fst] in *.
  destruct (Nat.eqb_spec k h) as [->|Hne].
  - inversion Hf; subst x. rewrite hset_notin by assumption. rewrite !abs_hs_cons, Ha. reflexivity.
  - rewrite !abs_hs_cons, (IH H2 Hf Ha). reflexivity.
Qed.

Section Refine.
Variable spp : nat.
Hypothesis spp_pos : (1 <= spp)%nat.
Local Set Default Proof Using "spp_pos".

Notation YInv := (YInv spp).
Notation step := (step spp).
Local Notation step_end_spec := (step_end_spec spp spp_pos).
Local Notation step_add_spec := (step_add_spec spp spp_pos).
Local Notation step_clone_spec := (step_clone_spec spp spp_pos).
Local Notation step_force_spec := (step_force_spec spp spp_pos).
Local Notation step_release_like_spec := (step_release_like_spec spp spp_pos).

(** the counting invariant of the abstract store holds of the abstraction *)
Theorem abs_inv y sl :
  YInv y -> y_slab y = Alive sl -> AInv addr addr_eqb (abs sl (y_hs y)).
Proof.
  intros (Hnd & HY) Ha. rewrite Ha in HY. destruct HY as (_ & HRC & _). split; cbn [abs a_hs a_map].
  - rewrite abs_hs_keys. exact Hnd.
  - intros a. rewrite abs_hs_count. apply HRC.
Qed.

(** ** refinement: one operation = one abstract step with the same result, or no change *)
Theorem refine_step y sl o y' out :
  YInv y -> y_slab y = Alive sl -> step y o = Done y' out ->
  match aproj o with
  | Some ao =>
      exists s', astep addr addr_eqb (abs sl (y_hs y)) ao (ares_of o out) s' /\
                 a_hs s' = abs_hs (y_hs y') /\
                 (forall sl', y_slab y' = Alive sl' -> forall j, a_map s' j = slot_read sl' j)
  | None =>
      abs_hs (y_hs y') = abs_hs (y_hs y) /\
      (forall sl', y_slab y' = Alive sl' -> forall j, slot_read sl' j = slot_read sl j)
  end.
Proof.
  intros HY Ha Hst.
  destruct (step_cases spp spp_pos y sl o HY Ha)
    as [E|[(h & hd & He & Hf)|[(h & p & -> & Hf)|[(h & h2 & hd & -> & Hf & Hf2)|[(h & a & -> & Hf & H1)|
        [(h & a & -> & Hf & E)|[(h & hd & p & rc & -> & Hf & Hr & E)|[(-> & E)|
        [(refs & tok & Ho & _ & E)|(refs & tok & Ho & Hc & E)]]]]]]]]]; try rewrite E in Hst.
  - discriminate.
  - (* the end of a handle *)
    assert (Hp : aproj o = Some (AEnd h)) by (destruct He as [-> | [-> | ->]]; reflexivity).
    rewrite Hp.
    destruct (step_end_spec y sl o h hd HY Ha He Hf)
      as (p & rc & y1 & out1 & Hr & Hrc & Hst1 & _ & Hhs & _ & _ & Hres & Hlog & _ & _ & Hd).
    rewrite Hst in Hst1. injection Hst1 as <- <-.
    set (last := (hcount (h_addr hd) (y_hs y) =? 1)%nat) in *.
    exists (mkA (fun j => if addr_eqb (h_addr hd) j then (if last then None else Some (p, rc - 1)) else slot_read sl j)
                (abs_hs (hremove h (y_hs y)))).
    split; [|split].
    + cbn [astep abs a_hs a_map]. exists (h_addr hd), p, rc.
      split; [rewrite abs_hs_find, Hf; reflexivity|]. split; [exact Hr|].
      split; [rewrite abs_hs_remove; reflexivity|].
      assert (Hares : ares_of o out = if last then ARGone p else ARKept).
      { destruct He as [-> | [-> | ->]]; cbn [ares_of]; rewrite ?Hres, ?Hlog; destruct last; cbn;
          try reflexivity; destruct (is_ext (h_kind hd) && (slab_count y =? 1)); reflexivity. }
      rewrite Hares. destruct last eqn:El.
      * left. apply Nat.eqb_eq in El. split; [lia|]. split; [reflexivity|]. intros j. reflexivity.
      * right. apply Nat.eqb_neq in El. split; [lia|]. split; [reflexivity|]. intros j. reflexivity.
    + cbn [a_hs]. rewrite Hhs. reflexivity.
    + intros sl' Ha' j. cbn [a_map]. destruct (is_ext (h_kind hd) && (slab_count y =? 1)).
      * rewrite Hd in Ha'. discriminate.
      * destruct Hd as (sl2 & Ha2 & _ & Hrd & _). rewrite Ha' in Ha2. injection Ha2 as <-.
        rewrite Hrd. reflexivity.
  - (* OAdd *)
    destruct (step_add_spec y sl h p HY Ha Hf) as (a & sl' & Hst1 & _ & _ & Hr0 & _ & Hrd & _).
    rewrite Hst in Hst1. injection Hst1 as -> ->.
    exists (abs sl' ((h, mkH a KInt) :: y_hs y)). split; [|split].
    + cbn [astep abs a_hs a_map ares_of]. split; [rewrite abs_hs_find, Hf; reflexivity|].
      exists a. split; [exact Hr0|]. split; [reflexivity|]. split; [reflexivity | exact Hrd].
    + reflexivity.
    + cbn. intros sl2 E j. injection E as <-. reflexivity.
  - (* OClone *)
    destruct (step_clone_spec y sl h h2 hd HY Ha Hf Hf2) as (p & rc & sl' & Hr & Hst1 & _ & Hrd & _).
    rewrite Hst in Hst1. injection Hst1 as -> ->.
    exists (abs sl' ((h2, hd) :: y_hs y)). split; [|split].
    + cbn [astep abs a_hs a_map ares_of o_res]. exists (h_addr hd), p, rc.
      split; [rewrite abs_hs_find, Hf; reflexivity|]. split; [rewrite abs_hs_find, Hf2; reflexivity|].
      split; [exact Hr|]. split; [reflexivity|]. split; [reflexivity | exact Hrd].
    + reflexivity.
    + cbn. intros sl2 E j. injection E as <-. reflexivity.
  - (* OForce *)
    destruct (step_force_spec y sl h a HY Ha Hf H1) as (p & sl' & Hr & Hst1 & _ & Hrd & _).
    rewrite Hst in Hst1. injection Hst1 as -> ->.
    exists (abs sl' (hremove h (y_hs y))). split; [|split].
    + cbn [astep abs a_hs a_map ares_of o_res]. exists a, p, 1.
      split; [rewrite abs_hs_find, Hf; reflexivity|]. split; [exact Hr|].
      split; [rewrite abs_hs_remove; reflexivity|]. left. split; [reflexivity|]. split; [reflexivity | exact Hrd].
    + reflexivity.
    + cbn. intros sl2 E2 j. injection E2 as <-. reflexivity.
  - (* OExt *)
    injection Hst as <- <-. cbn [aproj y_hs y_slab].
    destruct HY as (Hnd & _). split; [apply (abs_hs_set h _ _ _ Hnd Hf); reflexivity|].
    intros sl' E' j. injection E' as <-. reflexivity.
  - (* OGet *)
    injection Hst as <- <-. exists (abs sl (y_hs y)). split; [|split].
    + cbn [astep abs a_hs a_map ares_of o_res]. exists (h_addr hd), p, rc.
      split; [rewrite abs_hs_find, Hf; reflexivity|]. split; [exact Hr|]. auto.
    + reflexivity.
    + intros sl2 E' j. rewrite Ha in E'. injection E' as <-. reflexivity.
  - (* ONum *)
    injection Hst as <- <-. split; [reflexivity|].
    intros sl2 E' j. rewrite Ha in E'. injection E' as <-. reflexivity.
  - (* ORetain, ORefClone *)
    assert (Hp : aproj o = None) by (destruct Ho as [-> | ->]; reflexivity). rewrite Hp.
    injection Hst as <- <-. split; [reflexivity|]. intros sl2 E' j. injection E' as <-. reflexivity.
  - (* ORelease, ORefDrop *)
    assert (Hp : aproj o = None) by (destruct Ho as [-> | ->]; reflexivity). rewrite Hp.
    destruct (step_release_like_spec y sl refs tok HY Ha Hc) as (y1 & out1 & Hst1 & _ & Hhs & _ & _ & _ & _ & Hd).
    rewrite Hst in Hst1. injection Hst1 as <- <-. rewrite Hhs. split; [reflexivity|].
    intros sl2 E2 j. destruct Hd as [(_ & Hd & _)|(_ & Hd & _)]; rewrite Hd in E2; [discriminate|].
    injection E2 as <-. reflexivity.
Qed.

End Refine.

(** ** a reference store: ids 0, 1, 2, ... in order of creation, never re-used *)

Record rstore := mkR { r_next : N; r_map : list (N * (N * N)); r_hs : list (nat * N) }.

Fixpoint rfind (id : N) (m : list (N * (N * N))) : option (N * N) :=
  match m with
  | [] => None
  | (k, v) :: r => if k =? id then Some v else rfind id r
  end.

Fixpoint rdel (id : N) (m : list (N * (N * N))) : list (N * (N * N)) :=
  match m with
  | [] => []
  | (k, v) :: r => if k =? id then rdel id r else (k, v) :: rdel id r
  end.

Definition rinit : rstore := mkR 0 [] [].

Definition ref_step (r : rstore) (o : aop) : option (rstore * ares) :=
  match o with
  | AAdd h p =>
      match afind h (r_hs r) with
      | Some _ => None
      | None => Some (mkR (r_next r + 1) ((r_next r, (p, 1)) :: r_map r) ((h, r_next r) :: r_hs r), ARAdded)
      end
  | AClone h h2 =>
      match afind h (r_hs r), afind h2 (r_hs r) with
      | Some id, None =>
          match rfind id (r_map r) with
          | Some (p, rc) => Some (mkR (r_next r) ((id, (p, rc + 1)) :: r_map r) ((h2, id) :: r_hs r), ARCount (rc + 1))
          | None => None
          end
      | _, _ => None
      end
  | AEnd h =>
      match afind h (r_hs r) with
      | Some id =>
          match rfind id (r_map r) with
          | Some (p, rc) =>
              if rc =? 1 then Some (mkR (r_next r) (rdel id (r_map r)) (aremove h (r_hs r)), ARGone p)
              else Some (mkR (r_next r) ((id, (p, rc - 1)) :: r_map r) (aremove h (r_hs r)), ARKept)
          | None => None
          end
      | None => None
      end
  | AGet h =>
      match afind h (r_hs r) with
      | Some id => match rfind id (r_map r) with Some (p, rc) => Some (r, ARVal p rc) | None => None end
      | None => None
      end
  end.

Definition rabs (r : rstore) : astate N := mkA (fun id => rfind id (r_map r)) (r_hs r).

(** every id in use is below the next id *)
Definition RInv (r : rstore) : Prop := forall id, r_next r <= id -> rfind id (r_map r) = None.

Lemma rfind_rdel id m j : rfind j (rdel id m) = if id =? j then None else rfind j m.
Proof.
  induction m as [|[k v] r IH]; cbn [rdel rfind]; [destruct (id =? j); reflexivity|].
  destruct (N.eqb_spec k id) as [->|Hne].
  - rewrite IH. destruct (N.eqb_spec id j); reflexivity.
  - cbn [rfind]. rewrite IH. destruct (N.eqb_spec k j) as [->|Hne'].
    + destruct (N.eqb_spec id j); [congruence | reflexivity].
    + reflexivity.
Qed.

Lemma Neqb_eq a b : (a =? b) = true <-> a = b.
Proof. apply N.eqb_eq. Qed.

(** the reference store refines the abstract store *)
Theorem ref_refines r o r' res :
  RInv r -> ref_step r o = Some (r', res) -> astep N N.eqb (rabs r) o res (rabs r') /\ RInv r'.
Proof.
  intros HI Hst. destruct o as [h p|h h2|h|h]; cbn [ref_step] in Hst.
  - destruct (afind h (r_hs r)) eqn:Hf; [discriminate|]. inversion Hst; subst r' res. split.
    + cbn [astep rabs a_hs a_map r_hs r_map]. split; [exact Hf|]. exists (r_next r).
      split; [apply HI; lia|]. split; [reflexivity|]. split; [reflexivity|]. intros j. reflexivity.
    + intros id Hid. cbn [r_next r_map rfind] in *. destruct (N.eqb_spec (r_next r) id); [lia|]. apply HI. lia.
  - destruct (afind h (r_hs r)) as [id|] eqn:Hf; [|discriminate].
    destruct (afind h2 (r_hs r)) eqn:Hf2; [discriminate|].
    destruct (rfind id (r_map r)) as [[p rc]|] eqn:Hr; [|discriminate]. inversion Hst; subst r' res. split.
    + cbn [astep rabs a_hs a_map r_hs r_map]. exists id, p, rc. repeat (split; [assumption || reflexivity|]).
      intros j. reflexivity.
    + intros j Hj. cbn [r_next r_map rfind] in *. destruct (N.eqb_spec id j) as [->|]; [|apply HI; exact Hj].
      rewrite (HI j Hj) in Hr. discriminate.
  - destruct (afind h (r_hs r)) as [id|] eqn:Hf; [|discriminate].
    destruct (rfind id (r_map r)) as [[p rc]|] eqn:Hr; [|discriminate].
    destruct (N.eqb_spec rc 1) as [E|E]; inversion Hst; subst r' res; split.
    + cbn [astep rabs a_hs a_map r_hs r_map]. exists id, p, rc. repeat (split; [assumption || reflexivity|]).
      left. split; [exact E|]. split; [reflexivity|]. intros j. apply rfind_rdel.
    + intros j Hj. cbn [r_next r_map]. rewrite rfind_rdel. destruct (id =? j); [reflexivity | apply HI; exact Hj].
    + cbn [astep rabs a_hs a_map r_hs r_map]. exists id, p, rc. repeat (split; [assumption || reflexivity|]).
      right. split; [exact E|]. split; [reflexivity|]. intros j. reflexivity.
    + intros j Hj. cbn [r_next r_map rfind] in *. destruct (N.eqb_spec id j) as [->|]; [|apply HI; exact Hj].
      rewrite (HI j Hj) in Hr. discriminate.
  - destruct (afind h (r_hs r)) as [id|] eqn:Hf; [|discriminate].
    destruct (rfind id (r_map r)) as [[p rc]|] eqn:Hr; [|discriminate]. inversion Hst; subst r' res. split; [|exact HI].
    cbn [astep rabs a_hs a_map]. exists id, p, rc. repeat (split; [assumption || reflexivity|]). intros j. reflexivity.
Qed.

Lemma rinit_inv : RInv rinit /\ AInv N N.eqb (rabs rinit).
Proof.
  split; [intros id _; reflexivity|]. split; [constructor|]. intros id. reflexivity.
Qed.

Lemma ref_enabled (I : Type) (ieqb : I -> I -> bool) (s1 s1' : astate I) r ao res :
  sim I N s1 (rabs r) -> astep I ieqb s1 ao res s1' ->
  exists r' res2, ref_step r ao = Some (r', res2).
Proof.
  intros Hsim Hst. pose proof Hsim as (Hk & Hv & _).
  assert (Hb : forall h id1, afind h (a_hs s1) = Some id1 -> exists id2, afind h (r_hs r) = Some id2).
  { intros h id1 Hf. destruct (afind h (r_hs r)) as [id2|] eqn:E; [eauto|].
    apply (sim_bound I N s1 (rabs r) h Hsim) in E. congruence. }
  destruct ao as [h p|h h2|h|h]; cbn [astep] in Hst; cbn [ref_step].
  - destruct Hst as (Hf & _). apply (sim_bound I N s1 (rabs r) h Hsim) in Hf. cbn [rabs a_hs] in Hf. rewrite Hf. eauto.
  - destruct Hst as (id1 & p & rc & Hf & Hf2 & Hm & _). destruct (Hb h id1 Hf) as [id2 Hf'].
    apply (sim_bound I N s1 (rabs r) h2 Hsim) in Hf2. cbn [rabs a_hs] in Hf2. rewrite Hf', Hf2.
    pose proof (Hv h id1 id2 Hf Hf') as E. cbn [rabs a_map] in E. rewrite <- E, Hm. eauto.
  - destruct Hst as (id1 & p & rc & Hf & Hm & _). destruct (Hb h id1 Hf) as [id2 Hf']. rewrite Hf'.
    pose proof (Hv h id1 id2 Hf Hf') as E. cbn [rabs a_map] in E. rewrite <- E, Hm. destruct (rc =? 1); eauto.
  - destruct Hst as (id1 & p & rc & Hf & Hm & _). destruct (Hb h id1 Hf) as [id2 Hf']. rewrite Hf'.
    pose proof (Hv h id1 id2 Hf Hf') as E. cbn [rabs a_map] in E. rewrite <- E, Hm. eauto.
Qed.

(** ** the same script on the slab and on the reference store *)

(** item-level operations (without `force_into_inner`, whose precondition the abstract store
    does not have) *)
Definition item_op (o : op) : bool :=
  match o with
  | OAdd _ _ | OClone _ _ | ODrop _ | ODropWith _ | OIntoInner _ | OGet _ => true
  | _ => false
  end.

Definition aop_of (o : op) : aop :=
  match aproj o with Some ao => ao | None => AGet 0 end.

Section Equiv.
Variable spp : nat.
Hypothesis spp_pos : (1 <= spp)%nat.
Local Set Default Proof Using "spp_pos".

(** results of a script on the slab: [None] = the operation is rejected *)
Fixpoint arc_exec (y : sys) (ops : list op) : list (option ares) :=
  match ops with
  | [] => []
  | o :: r =>
      match step spp y o with
      | Done y' out => Some (ares_of o out) :: arc_exec y' r
      | _ => None :: arc_exec y r
      end
  end.

Fixpoint ref_exec (r : rstore) (ops : list aop) : list (option ares) :=
  match ops with
  | [] => []
  | o :: rest =>
      match ref_step r o with
      | Some (r', res) => Some res :: ref_exec r' rest
      | None => None :: ref_exec r rest
      end
  end.

(** the client holds one `ArcSlabRef` and only `IntHandle`s *)
Definition simple (y : sys) : Prop :=
  y_refs y = 1 /\ y_tok y = 0 /\ Forall (fun e => h_kind (snd e) = KInt) (y_hs y).

Lemma hremove_Forall (P : nat * handle -> Prop) h hs : Forall P hs -> Forall P (hremove h hs).
Proof.
  induction hs as [|[k v] r IH]; cbn; [auto|]. intros H. inversion H; subst.
  destruct (k =? h)%nat; [auto | constructor; auto].
Qed.

Lemma simple_kind y h hd : simple y -> hfind h (y_hs y) = Some hd -> h_kind hd = KInt.
Proof.
  intros (_ & _ & HF) Hf. rewrite Forall_forall in HF. apply (HF (h, hd)). apply hfind_In. exact Hf.
Qed.

Lemma simple_step y o y' out :
  simple y -> item_op o = true -> step spp y o = Done y' out ->
  simple y' /\ exists sl', y_slab y' = Alive sl'.
Proof.
  intros HS Hi Hst. pose proof HS as (H1 & H2 & HF).
  destruct (y_slab y) as [sl|n] eqn:Ha; [|unfold ArcSlab.step in Hst; rewrite Ha in Hst; discriminate].
  assert (Hend : forall h, is_end o h -> simple y' /\ exists sl', y_slab y' = Alive sl').
  { intros h He. rewrite (step_end_unfold spp y sl o h Ha He) in Hst.
    destruct (hfind h (y_hs y)) as [hd|] eqn:Hf; [|discriminate].
    destruct (slot_release sl (h_addr hd)) as [[sl1 d]|]; [|discriminate].
    rewrite (simple_kind y h hd HS Hf) in Hst. cbn [finish_handle] in Hst.
    injection Hst as <- <-; unfold simple; cbn [y_refs y_tok y_hs y_slab].
    split; [|eauto]. split; [exact H1|]. split; [exact H2|]. apply hremove_Forall. exact HF. }
  unfold ArcSlab.step in Hst. rewrite Ha in Hst.
  destruct o as [h p|h h2|h|h|h|h|h|h| | | | | ]; try discriminate.
  - destruct (hfind h (y_hs y)); [discriminate|]. destruct (add_item spp sl p) as [[a sl']|]; [|discriminate].
    injection Hst as <- <-; unfold simple; cbn [y_refs y_tok y_hs y_slab].
    split; [|eauto]. split; [exact H1|]. split; [exact H2|]. constructor; [reflexivity | exact HF].
  - destruct (hfind h (y_hs y)) as [hd|] eqn:Hf; [|discriminate]. destruct (hfind h2 (y_hs y)); [discriminate|].
    destruct (slot_retain sl (h_addr hd)) as [[sl1 rc]|]; [|discriminate].
    injection Hst as <- <-; unfold simple; cbn [y_refs y_tok y_hs y_slab].
    split; [|eauto]. split; [exact H1|]. split; [exact H2|].
    constructor; [exact (simple_kind y h hd HS Hf) | exact HF].
  - apply (Hend h). left; reflexivity.
  - apply (Hend h). right; right; reflexivity.
  - apply (Hend h). right; left; reflexivity.
  - destruct (hfind h (y_hs y)) as [hd|] eqn:Hf; [|discriminate].
    destruct (slot_read sl (h_addr hd)) as [[p rc]|]; [|discriminate].
    injection Hst as <- <-. split; [exact HS|]. rewrite Ha. eauto.
Qed.

(** an operation the slab rejects is rejected by the reference store *)
Lemma ref_rejects y sl o r :
  y_slab y = Alive sl -> item_op o = true -> step spp y o = Invalid ->
  sim addr N (abs sl (y_hs y)) (rabs r) -> ref_step r (aop_of o) = None.
Proof using.
  intros Ha Hi Hst Hsim.
  assert (Hn : forall h, hfind h (y_hs y) = None -> afind h (r_hs r) = None).
  { intros h Hf. apply (sim_bound addr N _ (rabs r) h Hsim). cbn [abs a_hs]. rewrite abs_hs_find, Hf. reflexivity. }
  assert (Hs : forall h hd, hfind h (y_hs y) = Some hd -> exists id, afind h (r_hs r) = Some id).
  { intros h hd Hf. destruct (afind h (r_hs r)) as [id|] eqn:E; [eauto|].
    apply (sim_bound addr N _ (rabs r) h Hsim) in E. cbn [abs a_hs] in E. rewrite abs_hs_find, Hf in E. discriminate. }
  assert (Hend : forall h, is_end o h -> ref_step r (AEnd h) = None).
  { intros h He. rewrite (step_end_unfold spp y sl o h Ha He) in Hst. cbn [ref_step].
    destruct (hfind h (y_hs y)) as [hd|] eqn:Hf; [|rewrite (Hn h Hf); reflexivity].
    exfalso. destruct (slot_release sl (h_addr hd)) as [[sl1 d]|]; [|discriminate].
    destruct (h_kind hd); cbn in Hst; [discriminate|].
    unfold finish_release in Hst. destruct (slab_release sl1); discriminate. }
  unfold ArcSlab.step in Hst. rewrite Ha in Hst.
  destruct o as [h p|h h2|h|h|h|h|h|h| | | | | ]; try discriminate; unfold aop_of; cbn [aproj ref_step].
  - destruct (hfind h (y_hs y)) as [hd|] eqn:Hf.
    + destruct (Hs h hd Hf) as [id ->]. reflexivity.
    + destruct (add_item spp sl p) as [[? ?]|]; discriminate.
  - destruct (hfind h (y_hs y)) as [hd|] eqn:Hf; [|rewrite (Hn h Hf); reflexivity].
    destruct (hfind h2 (y_hs y)) as [hd2|] eqn:Hf2.
    + destruct (Hs h hd Hf) as [id ->]. destruct (Hs h2 hd2 Hf2) as [id2 ->]. reflexivity.
    + destruct (slot_retain sl (h_addr hd)) as [[? ?]|]; discriminate.
  - apply (Hend h). left; reflexivity.
  - apply (Hend h). right; right; reflexivity.
  - apply (Hend h). right; left; reflexivity.
  - destruct (hfind h (y_hs y)) as [hd|] eqn:Hf; [|rewrite (Hn h Hf); reflexivity].
    destruct (slot_read sl (h_addr hd)) as [[? ?]|]; discriminate.
Qed.

Lemma finish_release_not_dead sl hs refs tok r log : finish_release sl hs refs tok r log <> Dead.
Proof using. unfold finish_release. destruct (slab_release sl); discriminate. Qed.

Lemma finish_handle_not_dead k sl hs refs tok r log : finish_handle k sl hs refs tok r log <> Dead.
Proof using. destruct k; [discriminate | apply finish_release_not_dead]. Qed.

Lemma step_dead y o : step spp y o = Dead -> exists n, y_slab y = Destroyed n.
Proof using.
  unfold ArcSlab.step. destruct (y_slab y) as [sl|n] eqn:Ha; [|eauto]. intros H. exfalso.
  destruct o;
    repeat match type of H with
           | finish_handle _ _ _ _ _ _ _ = Dead => exact (finish_handle_not_dead _ _ _ _ _ _ _ H)
           | finish_release _ _ _ _ _ _ = Dead => exact (finish_release_not_dead _ _ _ _ _ _ H)
           | context [match ?x with _ => _ end] => destruct x
           end; discriminate.
Qed.

(** ** the slab and the reference store return the same results for every item-level script,
    rejected operations included *)
Lemma equiv_from ops : forall y sl r,
  YInv spp y -> y_slab y = Alive sl -> simple y -> RInv r -> AInv N N.eqb (rabs r) ->
  sim addr N (abs sl (y_hs y)) (rabs r) ->
  forallb item_op ops = true ->
  arc_exec y ops = ref_exec r (map aop_of ops).
Proof.
  induction ops as [|o ops IH]; intros y sl r HY Ha HS HR HAr Hsim Hall; [reflexivity|].
  cbn [forallb] in Hall. apply andb_true_iff in Hall. destruct Hall as [Hi Hall].
  cbn [arc_exec map ref_exec].
  pose proof (step_inv spp spp_pos y o HY) as Hinv.
  destruct (step spp y o) as [y' out| | |] eqn:Hst.
  - destruct (simple_step y o y' out HS Hi Hst) as [HS' [sl' Ha']].
    pose proof (refine_step spp spp_pos y sl o y' out HY Ha Hst) as Href.
    assert (Hp : aproj o = Some (aop_of o)).
    { unfold aop_of. destruct o; try discriminate; reflexivity. }
    rewrite Hp in Href. destruct Href as (s' & Hast & Hhs' & Hmap').
    assert (Hast' : astep addr addr_eqb (abs sl (y_hs y)) (aop_of o) (ares_of o out) (abs sl' (y_hs y'))).
    { eapply astep_ext; [exact Hast | cbn [abs a_hs]; congruence |]. intros j. cbn [abs a_map]. symmetry. apply (Hmap' sl' Ha'). }
    destruct (ref_enabled _ _ _ _ r _ _ Hsim Hast') as (r' & res2 & Hrs). rewrite Hrs.
    destruct (ref_refines r _ r' res2 HR Hrs) as [Hrst HR'].
    destruct (astep_id_independent addr N addr_eqb N.eqb addr_eqb_eq Neqb_eq _ _ _ _ _ _ _
                (abs_inv spp spp_pos y sl HY Ha) HAr Hsim Hast' Hrst) as [Eres Hsim'].
    rewrite Eres. f_equal.
    apply (IH y' sl' r' Hinv Ha' HS' HR'); [|exact Hsim' | exact Hall].
    eapply astep_inv; [exact Neqb_eq | exact HAr | exact Hrst].
  - rewrite (ref_rejects y sl o r Ha Hi Hst Hsim). f_equal. eapply IH; eauto.
  - destruct (step_dead y o Hst) as [n Hn]. congruence.
  - contradiction.
Qed.

Theorem arcslab_equiv_reference ops :
  forallb item_op ops = true ->
  arc_exec (init spp) ops = ref_exec rinit (map aop_of ops).
Proof.
  intros Hall. apply (equiv_from ops (init spp) (slab_new spp) rinit).
  - apply init_inv. exact spp_pos.
  - reflexivity.
  - split; [reflexivity|]. split; [reflexivity | constructor].
  - apply rinit_inv.
  - apply rinit_inv.
  - split; [reflexivity|]. split; [intros h id1 id2 H; discriminate H | intros h h' a a' b b' H; discriminate H].
  - exact Hall.
Qed.

End Equiv.

(** the page size is not observable through the results of item-level scripts *)
Theorem arcslab_page_size_irrelevant spp1 spp2 :
  (1 <= spp1)%nat -> (1 <= spp2)%nat -> forall ops,
  forallb item_op ops = true ->
  arc_exec spp1 (init spp1) ops = arc_exec spp2 (init spp2) ops.
Proof.
  intros H1 H2 ops Hall.
  rewrite (arcslab_equiv_reference spp1 H1 ops Hall), (arcslab_equiv_reference spp2 H2 ops Hall). reflexivity.
Qed.
