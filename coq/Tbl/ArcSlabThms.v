(** * ARCSLAB proofs, part 4: the property-level theorems (re-stated in coq/Props/C05.v as
      C05_arcslab_...): partition of the pages, exact counts, no dangling handle, conservation of
      items over whole scripts (every item leaves its slot exactly once, exactly when its last
      handle goes), no leak, the slab dies exactly when its count reaches zero, LIFO re-use. *)

From Coq Require Import List NArith ZArith Bool Arith Lia.
From OxiVerif Require Import Tbl.ArcSlab Tbl.ArcSlabProofsBase Tbl.ArcSlabProofs Tbl.ArcSlabProofsStep.
Import ListNotations.

Local Open Scope N_scope.

Arguments N.add : simpl never.
Arguments N.sub : simpl never.
Arguments N.mul : simpl never.
Arguments N.div : simpl never.
Arguments hcount : simpl never.
Arguments ecount : simpl never.

(** ** bookkeeping over outputs: items that entered a slot / left it (dropped or returned) *)

Definition added (out : out) : N := match o_res out with RAddr _ => 1 | _ => 0 end.

Definition gone_ev (e : ev) : N := match e with EvDrop _ => 1 | _ => 0 end.

Fixpoint gone_log (l : list ev) : N :=
  match l with [] => 0 | e :: r => gone_ev e + gone_log r end.

Definition gone (out : out) : N :=
  (match o_res out with RSome _ => 1 | _ => 0 end) + gone_log (o_log out).

Fixpoint total (f : out -> N) (l : list outcome) : N :=
  match l with
  | [] => 0
  | Done _ o :: r => f o + total f r
  | _ :: r => total f r
  end.

Lemma gone_log_app l1 l2 : gone_log (l1 ++ l2) = gone_log l1 + gone_log l2.
Proof. induction l1 as [|e r IH]; cbn [app gone_log]; [lia | rewrite IH; lia]. Qed.

Section Thms.
Variable spp : nat.
Hypothesis spp_pos : (1 <= spp)%nat.
Local Set Default Proof Using "spp_pos".

Notation YInv := (YInv spp).
Notation step := (step spp).
Local Notation step_end_spec := (step_end_spec spp spp_pos).
Local Notation step_add_spec := (step_add_spec spp spp_pos).
Local Notation step_clone_spec := (step_clone_spec spp spp_pos).
Local Notation step_force_spec := (step_force_spec spp spp_pos).
Local Notation step_release_like_spec := (step_release_like_spec spp spp_pos).
Local Notation step_inv := (step_inv spp spp_pos).
Local Notation RC_handle := (RC_handle spp spp_pos).
Local Notation no_handles_no_items := (no_handles_no_items spp spp_pos).

(** ** (a) the pages are partitioned into items, recycled free slots and never-used free slots;
    the free list is exactly [recycled ++ never-used], without repetition *)
Theorem partition y sl :
  YInv y -> y_slab y = Alive sl ->
  exists stack k,
    let pgs := pl_pages (sl_pl sl) in
    let never := fresh spp (length pgs) k in
    (k <= spp)%nat /\ pgs <> [] /\
    NoDup (stack ++ never) /\
    hd_error (stack ++ never) = Some (pl_free (sl_pl sl)) /\
    linked pgs (stack ++ never) /\
    (forall a, valid spp pgs a ->
       ((exists p rc, get_at pgs a = Some (Item p rc)) /\ ~ In a stack /\ ~ In a never) \/
       ((exists nx, get_at pgs a = Some (Free nx)) /\ In a stack /\ ~ In a never) \/
       ((exists nx, get_at pgs a = Some (Free nx)) /\ ~ In a stack /\ In a never)) /\
    (forall a, In a (stack ++ never) -> valid spp pgs a) /\
    sl_items sl = N.of_nat (cnt pgs).
Proof.
  intros (_ & HY) Ha. rewrite Ha in HY. destruct HY as ((stack & k & HSI & Hhd & Hit) & _).
  exists stack, k. cbv zeta. pose proof HSI as (Hs & Hk & Hnd & Hst & Hl & Hitm).
  split; [exact Hk|]. split; [exact (proj1 Hs)|].
  split; [exact (SI_chain_NoDup spp spp_pos _ _ _ HSI)|]. split; [exact Hhd|]. split; [exact Hl|].
  split; [intros a Hv; exact (SI_partition spp spp_pos _ _ _ a HSI Hv)|]. split; [|exact Hit].
  intros a Hin. apply in_app_or in Hin. destruct Hin as [Hin|Hin]; [apply Hst; exact Hin|].
  apply (fresh_In spp spp_pos) in Hin. split; [|lia].
  assert (length (pl_pages (sl_pl sl)) <> 0)%nat by (destruct Hs as [H _]; destruct (pl_pages (sl_pl sl)); cbn; congruence).
  lia.
Qed.

(** ** (b) counts *)
Theorem rc_exact y sl a p rc :
  YInv y -> y_slab y = Alive sl -> slot_read sl a = Some (p, rc) ->
  rc = N.of_nat (hcount a (y_hs y)) /\ 1 <= rc.
Proof.
  intros (_ & HY) Ha Hr. rewrite Ha in HY. destruct HY as (_ & HRC & _).
  specialize (HRC a). rewrite Hr in HRC. lia.
Qed.

Theorem free_slot_no_handle y sl a :
  YInv y -> y_slab y = Alive sl -> slot_read sl a = None -> hcount a (y_hs y) = 0%nat.
Proof.
  intros (_ & HY) Ha Hr. rewrite Ha in HY. destruct HY as (_ & HRC & _).
  specialize (HRC a). rewrite Hr in HRC. exact HRC.
Qed.

(** no use-after-free: every handle variable of a reachable state refers to a live item *)
Theorem no_dangling y sl h hd :
  YInv y -> y_slab y = Alive sl -> hfind h (y_hs y) = Some hd ->
  exists p rc, slot_read sl (h_addr hd) = Some (p, rc) /\ 1 <= rc.
Proof.
  intros (_ & HY) Ha Hf. rewrite Ha in HY. destruct HY as (_ & HRC & _).
  destruct (RC_handle _ _ _ _ HRC (hfind_In _ _ _ Hf)) as (p & rc & Hr & E & Hp).
  exists p, rc. split; [exact Hr | lia].
Qed.

Theorem num_items_exact y sl :
  YInv y -> y_slab y = Alive sl -> sl_items sl = N.of_nat (cnt (pl_pages (sl_pl sl))).
Proof.
  intros (_ & HY) Ha. rewrite Ha in HY. destruct HY as ((stack & k & _ & _ & Hit) & _). exact Hit.
Qed.

(** ** (c) no leak: no handle -> no item, every slot of every page is on the free list *)
Theorem no_handles_all_free y sl :
  YInv y -> y_slab y = Alive sl -> y_hs y = [] ->
  sl_items sl = 0 /\
  exists ch, NoDup ch /\ hd_error ch = Some (pl_free (sl_pl sl)) /\ linked (pl_pages (sl_pl sl)) ch /\
             forall a, valid spp (pl_pages (sl_pl sl)) a <-> In a ch.
Proof.
  intros HY Ha Hh. pose proof HY as (_ & HY0). rewrite Ha in HY0. destruct HY0 as (HS & HRC & _).
  rewrite Hh in HRC.
  destruct (partition y sl HY Ha) as (stack & k & Hk & Hne & Hnd & Hhd & Hl & Hpart & Hval & Hit).
  cbv zeta in *. split; [apply no_handles_no_items; assumption|].
  eexists. split; [exact Hnd|]. split; [exact Hhd|]. split; [exact Hl|].
  intros a. split; [|apply Hval].
  intros Hv. destruct (Hpart a Hv) as [((p & rc & Hg) & _)|[(_ & Hin & _)|(_ & _ & Hin)]].
  - exfalso. specialize (HRC a). unfold slot_read in HRC. rewrite Hg in HRC. unfold hcount in HRC. cbn in HRC. lia.
  - apply in_or_app. auto.
  - apply in_or_app. auto.
Qed.

(** ** the slab is alive exactly as long as its count (`ArcSlabRef`s + raw references +
    `ExtHandle`s) is not zero *)
Theorem alive_iff_count y :
  YInv y -> (obs_alive y = true <-> 1 <= slab_count y) /\ (obs_alive y = false <-> slab_count y = 0).
Proof.
  intros (_ & HY). unfold obs_alive, slab_count. destruct (y_slab y) as [sl|n].
  - destruct HY as (_ & _ & Hrc & Hpos). split; split; intros H; try reflexivity; try discriminate; lia.
  - destruct HY as (H1 & H2 & H3 & _). split; split; intros H; try reflexivity; try discriminate; lia.
Qed.

Theorem destroyed_leak_free y n :
  YInv y -> y_slab y = Destroyed n -> y_hs y = [] -> n = 0.
Proof. intros (_ & HY) Ha Hh. rewrite Ha in HY. destruct HY as (_ & _ & _ & H). auto. Qed.

(** ** one step: items are conserved; `D` is dropped exactly when the slab dies *)
Definition conserved (y y' : sys) (out : out) : Prop :=
  live y' + gone out = live y + added out /\
  (In EvData (o_log out) <-> obs_alive y' = false) /\
  (obs_alive y' = false -> slab_count y = 1).

Lemma conserved_quiet y sl y' sl' r :
  y_slab y = Alive sl -> y_slab y' = Alive sl' ->
  sl_items sl' + match r with RSome _ => 1 | _ => 0 end
  = sl_items sl + match r with RAddr _ => 1 | _ => 0 end ->
  conserved y y' (mkOut r []).
Proof.
  intros Ha Ha' H. unfold conserved, gone, added, live, obs_alive. cbn [o_res o_log gone_log In].
  rewrite Ha, Ha'. split; [lia|]. split; [split; [intros [] | discriminate] | discriminate].
Qed.

Lemma conserved_release y sl refs tok y' out :
  YInv y -> y_slab y = Alive sl -> refs + tok + 1 = y_refs y + y_tok y ->
  finish_release sl (y_hs y) refs tok RUnit [] = Done y' out -> conserved y y' out.
Proof.
  intros HY Ha Hcnt Hst.
  destruct (step_release_like_spec y sl refs tok HY Ha Hcnt)
    as (y1 & out1 & Hst1 & _ & _ & _ & _ & Hres & Hlive & Hc).
  rewrite Hst in Hst1. injection Hst1 as <- <-.
  unfold conserved, gone, added, obs_alive. rewrite Hres, Hlive.
  destruct Hc as [(E1 & -> & ->)|(E1 & -> & ->)]; cbn [gone_log gone_ev In]; (split; [lia|]).
  - split; [tauto | intros _; exact E1].
  - split; [split; [intros [] | discriminate] | discriminate].
Qed.

Theorem step_delta y o y' out :
  YInv y -> step y o = Done y' out ->
  live y' + gone out = live y + added out /\
  (In EvData (o_log out) <-> obs_alive y' = false) /\
  (obs_alive y' = false -> slab_count y = 1).
Proof.
  intros HY Hst. change (conserved y y' out).
  destruct (y_slab y) as [sl|n] eqn:Ha; [|unfold ArcSlab.step in Hst; rewrite Ha in Hst; discriminate].
  destruct (step_cases spp spp_pos y sl o HY Ha)
    as [E|[(h & hd & He & Hf)|[(h & p & -> & Hf)|[(h & h2 & hd & -> & Hf & Hf2)|[(h & a & -> & Hf & H1)|
        [(h & a & -> & Hf & E)|[(h & hd & p & rc & -> & _ & _ & E)|[(-> & E)|
        [(refs & tok & _ & Hc & E)|(refs & tok & _ & Hc & E)]]]]]]]]]; try rewrite E in Hst.
  - discriminate.
  - destruct (step_end_spec y sl o h hd HY Ha He Hf)
      as (p & rc & y1 & out1 & _ & _ & Hst1 & _ & _ & _ & _ & Hres & Hlog & Hlive & Hl1 & Hd).
    rewrite Hst in Hst1. injection Hst1 as <- <-.
    unfold conserved, gone, added. rewrite Hres, Hlog, gone_log_app.
    set (last := (hcount (h_addr hd) (y_hs y) =? 1)%nat) in *.
    set (dies := is_ext (h_kind hd) && (slab_count y =? 1)) in *.
    assert (Hg : (match end_res o (if last then Some p else None) with RSome _ => 1 | _ => 0 end)
                 + gone_log (end_log o (if last then Some p else None)) = if last then 1 else 0).
    { destruct He as [-> | [-> | ->]]; destruct last; reflexivity. }
    assert (Ha0 : match end_res o (if last then Some p else None) with RAddr _ => 1 | _ => 0 end = 0).
    { destruct He as [-> | [-> | ->]]; destruct last; reflexivity. }
    assert (Hnd : ~ In EvData (end_log o (if last then Some p else None))).
    { destruct He as [-> | [-> | ->]]; destruct last; cbn; intuition discriminate. }
    rewrite Ha0. split; [|split].
    + assert (Hz : gone_log (if dies then [EvData] else []) = 0) by (destruct dies; reflexivity).
      rewrite Hz, Hlive. destruct last; [specialize (Hl1 eq_refl)|]; lia.
    + rewrite in_app_iff. unfold obs_alive. destruct dies.
      * rewrite Hd. cbn. tauto.
      * destruct Hd as (sl' & -> & _). cbn. split; [tauto | discriminate].
    + unfold obs_alive. destruct dies eqn:Ed.
      * intros _. apply andb_true_iff in Ed. destruct Ed as [_ Ed]. apply N.eqb_eq in Ed. exact Ed.
      * destruct Hd as (sl' & -> & _). discriminate.
  - destruct (step_add_spec y sl h p HY Ha Hf) as (a & sl' & Hst1 & _ & _ & _ & _ & _ & Hit).
    rewrite Hst in Hst1. injection Hst1 as -> ->.
    apply (conserved_quiet y sl _ sl' _ Ha); [reflexivity | lia].
  - destruct (step_clone_spec y sl h h2 hd HY Ha Hf Hf2) as (p & rc & sl' & _ & Hst1 & _ & _ & Hit & _).
    rewrite Hst in Hst1. injection Hst1 as -> ->.
    apply (conserved_quiet y sl _ sl' _ Ha); [reflexivity | lia].
  - destruct (step_force_spec y sl h a HY Ha Hf H1) as (p & sl' & _ & Hst1 & _ & _ & Hit & Hit1 & _).
    rewrite Hst in Hst1. injection Hst1 as -> ->.
    apply (conserved_quiet y sl _ sl' _ Ha); [reflexivity | lia].
  - injection Hst as <- <-. apply (conserved_quiet y sl _ (slab_retain sl) _ Ha); reflexivity.
  - injection Hst as <- <-. apply (conserved_quiet y sl y sl _ Ha Ha). reflexivity.
  - injection Hst as <- <-. apply (conserved_quiet y sl y sl _ Ha Ha). reflexivity.
  - injection Hst as <- <-. apply (conserved_quiet y sl _ (slab_retain sl) _ Ha); reflexivity.
  - exact (conserved_release y sl refs tok y' out HY Ha Hc Hst).
Qed.

(** ** whole scripts: (items ever added) = (items dropped or returned) + (items in their slots) *)
Theorem run_conservation ops : forall y yf outs,
  YInv y -> run spp y ops = Some (yf, outs) ->
  live yf + total gone outs = live y + total added outs.
Proof.
  induction ops as [|o r IH]; intros y yf outs HY Hrun; cbn [run] in Hrun.
  - inversion Hrun; subst. cbn. lia.
  - pose proof (step_inv y o HY) as Hinv. destruct (step y o) as [y' out| | |] eqn:E.
    + destruct (run spp y' r) as [[yf' l]|] eqn:Er; [|discriminate]. inversion Hrun; subst yf outs.
      destruct (step_delta y o y' out HY E) as (Hd & _). specialize (IH y' yf' l Hinv Er).
      cbn [total]. lia.
    + destruct (run spp y r) as [[yf' l]|] eqn:Er; [|discriminate]. inversion Hrun; subst yf outs.
      specialize (IH y yf' l HY Er). cbn [total]. exact IH.
    + destruct (run spp y r) as [[yf' l]|] eqn:Er; [|discriminate]. inversion Hrun; subst yf outs.
      specialize (IH y yf' l HY Er). cbn [total]. exact IH.
    + discriminate.
Qed.

(** from a new slab: after any script, every item that was added has been dropped / returned
    exactly once or is still in its slot; with no handle left nothing is in a slot *)
Theorem run_init_conservation ops :
  exists yf outs, run spp (init spp) ops = Some (yf, outs) /\ YInv yf /\
    total added outs = total gone outs + live yf /\
    (y_hs yf = [] -> total added outs = total gone outs).
Proof.
  destruct (run_init_inv spp spp_pos ops) as (yf & outs & Hrun & HYf).
  exists yf, outs. split; [exact Hrun|]. split; [exact HYf|].
  pose proof (run_conservation ops _ _ _ (init_inv spp spp_pos) Hrun) as H.
  assert (Hl0 : live (init spp) = 0) by reflexivity. rewrite Hl0 in H.
  split; [lia|]. intros Hh.
  assert (live yf = 0); [|lia].
  unfold live. destruct (y_slab yf) as [sl|n] eqn:Ha.
  - apply (proj1 (no_handles_all_free yf sl HYf Ha Hh)).
  - apply (destroyed_leak_free yf n HYf Ha Hh).
Qed.

(** ** LIFO: the slot whose item has just left is the next one to be handed out *)
Theorem lifo_reuse y sl o h hd y' out h2 p2 :
  YInv y -> y_slab y = Alive sl -> is_end o h -> hfind h (y_hs y) = Some hd ->
  hcount (h_addr hd) (y_hs y) = 1%nat ->
  step y o = Done y' out -> obs_alive y' = true -> hfind h2 (y_hs y') = None ->
  exists y'', step y' (OAdd h2 p2) = Done y'' (mkOut (RAddr (h_addr hd)) []).
Proof.
  intros HY Ha He Hf H1 Hst Hal Hf2.
  destruct (step_end_spec y sl o h hd HY Ha He Hf)
    as (p & rc & y1 & out1 & _ & _ & Hst1 & HY1 & _ & _ & _ & _ & _ & _ & _ & Hd).
  rewrite Hst in Hst1. inversion Hst1; subst y1 out1. clear Hst1.
  rewrite H1 in Hd. cbn [Nat.eqb] in Hd.
  destruct (is_ext (h_kind hd) && (slab_count y =? 1)).
  - unfold obs_alive in Hal. rewrite Hd in Hal. discriminate.
  - destruct Hd as (sl' & Ha' & _ & _ & Hfree).
    destruct (step_add_spec y' sl' h2 p2 HY1 Ha' Hf2) as (a & sl'' & Hst2 & _ & Hfa & _).
    rewrite Hfa, (Hfree eq_refl) in Hst2. eauto.
Qed.

(** ** reachable states: after ANY script from a new slab *)
Definition reachable (y : sys) : Prop :=
  exists ops outs, run spp (init spp) ops = Some (y, outs).

Lemma run_app ops1 : forall y ops2 y1 l1,
  run spp y ops1 = Some (y1, l1) ->
  run spp y (ops1 ++ ops2) = match run spp y1 ops2 with Some (y2, l2) => Some (y2, l1 ++ l2) | None => None end.
Proof using.
  induction ops1 as [|o r IH]; intros y ops2 y1 l1 H; cbn [run app] in *.
  - inversion H; subst. destruct (run spp y1 ops2) as [[y2 l2]|]; reflexivity.
  - destruct (step y o) as [y' out| | |] eqn:E.
    + destruct (run spp y' r) as [[yf l]|] eqn:Er; [|discriminate]. inversion H; subst.
      rewrite (IH y' ops2 y1 l Er). destruct (run spp y1 ops2) as [[y2 l2]|]; reflexivity.
    + destruct (run spp y r) as [[yf l]|] eqn:Er; [|discriminate]. inversion H; subst.
      rewrite (IH y ops2 y1 l Er). destruct (run spp y1 ops2) as [[y2 l2]|]; reflexivity.
    + destruct (run spp y r) as [[yf l]|] eqn:Er; [|discriminate]. inversion H; subst.
      rewrite (IH y ops2 y1 l Er). destruct (run spp y1 ops2) as [[y2 l2]|]; reflexivity.
    + discriminate.
Qed.

Theorem reachable_init : reachable (init spp).
Proof using. exists [], []. reflexivity. Qed.

Theorem reachable_inv y : reachable y -> YInv y.
Proof.
  intros (ops & outs & Hrun). destruct (run_init_inv spp spp_pos ops) as (yf & l & Hrun' & HY).
  rewrite Hrun in Hrun'. inversion Hrun'; subst. exact HY.
Qed.

Theorem reachable_step y o y' out : reachable y -> step y o = Done y' out -> reachable y'.
Proof using.
  intros (ops & outs & Hrun) Hst. exists (ops ++ [o]), (outs ++ [Done y' out]).
  rewrite (run_app ops _ [o] y outs Hrun). cbn [run]. rewrite Hst. reflexivity.
Qed.

Theorem reachable_never_broken y o : reachable y -> step y o <> Broken.
Proof.
  intros HR E. pose proof (step_inv y o (reachable_inv y HR)) as H. rewrite E in H. exact H.
Qed.

End Thms.
