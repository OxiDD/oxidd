(** * C17 proofs, part 3: clear / iterators / drain / retain, the reference-set
    specification, the single-step refinement theorem and its lifting to
    arbitrary operation sequences.

    Statement of C17 (fixed text): "The open-addressing table that backs the
    unique tables contains exactly the elements inserted and not since removed:
    lookups find precisely those elements and terminate, iteration / len /
    drain / into_iter report them exactly once, and retain keeps exactly the
    elements accepted by the predicate.  This holds across growth, shrinking,
    tombstone accumulation, clone and clearing, for any hash distribution
    including total collisions." *)

From Coq Require Import List NArith ZArith Bool Arith Lia Permutation.
From OxiVerif Require Import Tbl.LinearHash Tbl.LinearHashProofsBase Tbl.LinearHashProofsCore.
Import ListNotations.


(** ** List helpers *)

Definition npred (pred : N -> bool) : N -> bool := fun x => negb (pred x).

Lemma filter_partition_length (f : N -> bool) l :
  length (filter f l) + length (filter (npred f) l) = length l.
Proof.
  induction l as [|x l IH]; [reflexivity|]. unfold npred in *. cbn [filter].
  destruct (f x); cbn [negb length]; lia.
Qed.

Lemma filter_rev' (f : N -> bool) l : filter f (rev l) = rev (filter f l).
Proof.
  induction l as [|x l IH]; [reflexivity|]. cbn [rev filter]. rewrite filter_app, IH.
  cbn [filter]. destruct (f x); cbn [rev]; [reflexivity | apply app_nil_r].
Qed.

Lemma firstn_in (l : list N) n x : In x (firstn n l) -> In x l.
Proof.
  revert l. induction n as [|n IH]; intros l H; [contradiction|].
  destruct l as [|y l]; [contradiction|]. cbn [firstn] in H. destruct H as [H|H].
  - left. exact H.
  - right. apply IH. exact H.
Qed.

Lemma NoDup_firstn (l : list N) n : NoDup l -> NoDup (firstn n l).
Proof.
  revert l. induction n as [|n IH]; intros l H; [constructor|].
  destruct l as [|y l]; [constructor|]. cbn [firstn]. inversion H as [|? ? H1 H2]; subst.
  constructor.
  - intros Hin. apply H1. apply (firstn_in _ _ _ Hin).
  - apply IH. exact H2.
Qed.

Lemma get_slot_rev l p : p < length l -> get_slot (rev l) p = get_slot l (length l - S p).
Proof. intros H. unfold get_slot. apply rev_nth. exact H. Qed.

Lemma get_slot_cons_S x l q : get_slot (x :: l) (S q) = get_slot l q.
Proof. reflexivity. Qed.

Lemma get_slot_cons_0 x l : get_slot (x :: l) 0 = x.
Proof. reflexivity. Qed.

(** ** Iterators *)

Lemma iter_loop_vals d : iter_loop d (N.of_nat (length (vals d))) = vals d.
Proof.
  induction d as [|s d IH]; [reflexivity|].
  destruct s; rewrite vals_cons; cbn [sv app length iter_loop].
  1, 2: destruct (N.eqb_spec (N.of_nat (length (vals d))) 0) as [H|H];
          [symmetry; apply length_zero_iff_nil; lia | exact IH].
  destruct (N.eqb_spec (N.of_nat (S (length (vals d)))) 0) as [H|H]; [lia|].
    replace (N.of_nat (S (length (vals d))) - 1)%N with (N.of_nat (length (vals d))) by lia.
    rewrite IH. reflexivity.
Qed.

(** ** clear *)

Lemma clear_loop_spec d :
  length (clear_loop d (N.of_nat (length (vals d)))) = length d /\
  vals (clear_loop d (N.of_nat (length (vals d)))) = [] /\
  nfree d <= nfree (clear_loop d (N.of_nat (length (vals d)))).
Proof.
  induction d as [|s d [IH1 [IH2 IH3]]]; [repeat split; cbn; lia|].
  set (n := N.of_nat (length (vals d))) in *.
  assert (Hgo : forall s0, length (Free :: clear_loop d n) = length (s0 :: d) /\
                           vals (Free :: clear_loop d n) = [] /\
                           nfree (s0 :: d) <= nfree (Free :: clear_loop d n)).
  { intros s0. cbn [length]. rewrite vals_cons, !nfree_cons. cbn [sv app slot_is_free].
    repeat split; [lia | exact IH2 | destruct (slot_is_free s0); lia]. }
  assert (Hstop : forall s0, sv s0 = [] -> n = 0%N ->
                    length (s0 :: d) = length (s0 :: d) /\ vals (s0 :: d) = [] /\ nfree (s0 :: d) <= nfree (s0 :: d)).
  { intros s0 Hs0 Hn. unfold n in Hn. repeat split; [|lia]. rewrite vals_cons, Hs0.
    apply length_zero_iff_nil. cbn [app]. lia. }
  destruct s as [| |st v]; rewrite vals_cons; cbn [sv app length clear_loop]; fold n.
  - destruct (N.eqb_spec n 0) as [H|H]; [apply Hstop; [reflexivity | exact H] | apply Hgo].
  - destruct (N.eqb_spec n 0) as [H|H]; [apply Hstop; [reflexivity | exact H] | apply Hgo].
  - destruct (N.eqb_spec (N.of_nat (S (length (vals d)))) 0) as [H|H]; [lia|].
    replace (N.of_nat (S (length (vals d))) - 1)%N with n by (unfold n; lia). apply Hgo.
Qed.

(** ** retain: the backwards loop *)

Definition idx_ok (lif : bool) (rd rd' : list slot) : Prop :=
  forall p, p < length rd ->
    (get_slot rd p = Free -> get_slot rd' p = Free) /\
    (forall st v, get_slot rd' p = Full st v -> get_slot rd p = Full st v) /\
    (get_slot rd' p = Free ->
       get_slot rd p = Free \/
       match p with 0 => lif = true | S q => get_slot rd' q = Free end).

Lemma idx_ok_refl lif rd : idx_ok lif rd rd.
Proof.
  intros p Hp. split; [intros H; exact H|]. split; [intros st v H; exact H|].
  intros H. left. exact H.
Qed.

Lemma idx_ok_cons lif lif' x x' r r' :
  idx_ok lif' r r' ->
  (lif' = true -> x' = Free) ->
  (x = Free -> x' = Free) ->
  (forall st v, x' = Full st v -> x = Full st v) ->
  (x' = Free -> x = Free \/ lif = true) ->
  idx_ok lif (x :: r) (x' :: r').
Proof.
  intros Hr Hl H1 H2 H3 p Hp. destruct p as [|q].
  - rewrite !get_slot_cons_0. split; [exact H1|]. split; [exact H2 | exact H3].
  - rewrite !get_slot_cons_S. cbn [length] in Hp.
    destruct (Hr q ltac:(lia)) as [G1 [G2 G3]].
    split; [exact G1|]. split; [exact G2|]. intros Hf.
    destruct (G3 Hf) as [G|G]; [left; exact G|]. right.
    destruct q as [|q'].
    + rewrite get_slot_cons_0. apply Hl. exact G.
    + rewrite get_slot_cons_S. exact G.
Qed.

Definition retain_post (pred : N -> bool) (lif : bool) (rd : list slot) (ln fr : N)
  (dr : list N) (rd' : list slot) (ln' fr' : N) (dr' : list N) : Prop :=
  length rd' = length rd /\
  vals rd' = filter pred (vals rd) /\
  Permutation dr' (filter (npred pred) (vals rd) ++ dr) /\
  (ln' + N.of_nat (length (filter (npred pred) (vals rd))) = ln)%N /\
  (fr' + N.of_nat (nfree rd) = fr + N.of_nat (nfree rd'))%N /\
  (fr <= fr')%N /\
  idx_ok lif rd rd'.

Lemma retain_loop_cons pred x r lif i ln fr dr : i <> 0%N -> (i <= ln)%N ->
  exists x' i0 ln0 fr0,
    retain_loop (x :: r) pred lif i ln fr dr =
      (let '(r', ln', fr', dr') :=
         retain_loop r pred (slot_is_free x') i0 ln0 fr0 (filter (npred pred) (sv x) ++ dr) in
       (x' :: r', ln', fr', dr')) /\
    sv x' = filter pred (sv x) /\
    (i0 + N.of_nat (length (sv x)) = i)%N /\
    (ln0 + N.of_nat (length (filter (npred pred) (sv x))) = ln)%N /\
    (fr0 + N.of_nat (if slot_is_free x then 1 else 0)
     = fr + N.of_nat (if slot_is_free x' then 1 else 0))%N /\ (fr <= fr0)%N /\
    (x = Free -> x' = Free) /\ (forall st v, x' = Full st v -> x = Full st v) /\
    (x' = Free -> x = Free \/ lif = true).
Proof.
  intros Hi Hle. cbn [retain_loop]. destruct (N.eqb_spec i 0) as [H0|_]; [contradiction|]. unfold npred.
  destruct x as [| |st v]; [| |destruct (pred v) eqn:Ep]; cbn [sv filter app length]; rewrite ?Ep; cbn [negb].
  - exists Free, i, ln, fr. repeat split; auto; lia.
  - destruct lif.
    + exists Free, i, ln, (fr + 1)%N. cbn. repeat split; auto; try discriminate; lia.
    + exists Tomb, i, ln, fr. repeat split; auto; try discriminate; lia.
  - exists (Full st v), (i - 1)%N, ln, fr. cbn. repeat split; auto; try discriminate; lia.
  - destruct lif.
    + exists Free, (i - 1)%N, (ln - 1)%N, (fr + 1)%N. cbn. repeat split; auto; try discriminate; lia.
    + exists Tomb, (i - 1)%N, (ln - 1)%N, fr. cbn. repeat split; auto; try discriminate; lia.
Qed.

Lemma retain_loop_spec pred : forall rd lif i ln fr dr rd' ln' fr' dr',
  retain_loop rd pred lif i ln fr dr = (rd', ln', fr', dr') ->
  i = N.of_nat (length (vals rd)) -> (i <= ln)%N ->
  retain_post pred lif rd ln fr dr rd' ln' fr' dr'.
Proof.
  assert (Hstop : forall lif rd ln fr dr, vals rd = [] -> retain_post pred lif rd ln fr dr rd ln fr dr).
  { intros lif rd ln fr dr Hnil. unfold retain_post. rewrite Hnil. cbn [filter length app].
    split; [reflexivity|]. split; [reflexivity|]. split; [apply Permutation_refl|].
    split; [lia|]. split; [lia|]. split; [lia|]. apply idx_ok_refl. }
  induction rd as [|x r IH]; intros lif i ln fr dr rd' ln' fr' dr' H Hi Hle.
  - cbn [retain_loop] in H.
    assert (H' : ([] : list slot, ln, fr, dr) = (rd', ln', fr', dr'))
      by (destruct (N.eqb i 0); exact H).
    injection H' as <- <- <- <-. apply Hstop. reflexivity.
  - destruct (N.eq_dec i 0) as [H0|H0].
    + cbn [retain_loop] in H. rewrite H0 in H. injection H as <- <- <- <-.
      apply Hstop, length_zero_iff_nil. lia.
    + destruct (retain_loop_cons pred x r lif i ln fr dr H0 Hle)
        as (x' & i0 & ln0 & fr0 & E & Hsv & Hi0 & Hln0 & Hfr0 & Hfr & C1 & C2 & C3).
      rewrite E in H. clear E H0.
      destruct (retain_loop r pred (slot_is_free x') i0 ln0 fr0 (filter (npred pred) (sv x) ++ dr))
        as [[[r1 ln1] fr1] dr1] eqn:E1.
      injection H as <- <- <- <-.
      rewrite vals_cons, app_length in Hi.
      pose proof (filter_partition_length pred (sv x)) as Hpx.
      destruct (IH _ _ _ _ _ _ _ _ _ E1 ltac:(lia) ltac:(lia)) as [L1 [L2 [L3 [L4 [L5 [L6 L7]]]]]].
      unfold retain_post. rewrite !vals_cons, !filter_app, app_length, (nfree_cons x), (nfree_cons x').
      split; [cbn [length]; lia|]. split; [rewrite Hsv, L2; reflexivity|].
      split; [rewrite <- app_assoc; eapply Permutation_trans; [exact L3|]; apply Permutation_app_swap_app|].
      split; [lia|]. split; [lia|]. split; [lia|].
      apply (idx_ok_cons lif (slot_is_free x') x x' r r1 L7); [|exact C1 | exact C2 | exact C3].
      intros Hf. destruct x'; [reflexivity | discriminate | discriminate].
Qed.

(** the loop only frees slots whose cyclic successor is free *)
Lemma idx_ok_shrinks d rd' :
  idx_ok (slot_is_free (get_slot d 0)) (rev d) rd' -> length rd' = length d ->
  shrinks d (rev rd').
Proof.
  intros Hidx Hlen. split; [rewrite rev_length; exact Hlen|].
  intros i Hi.
  assert (Hp : length d - S i < length (rev d)) by (rewrite rev_length; lia).
  destruct (Hidx _ Hp) as [G1 [G2 G3]].
  assert (Eold : get_slot (rev d) (length d - S i) = get_slot d i).
  { rewrite get_slot_rev by lia. f_equal. lia. }
  assert (Enew : get_slot rd' (length d - S i) = get_slot (rev rd') i).
  { rewrite get_slot_rev by lia. rewrite Hlen. reflexivity. }
  rewrite Eold, Enew in *. split; [exact G2|].
  intros Hf. destruct (G3 Hf) as [G|G]; [left; exact G|]. right.
  destruct (length d - S i) as [|q] eqn:Eq.
  - (* last slot: its successor is slot 0, which was free from the start *)
    assert (Hi' : i = length d - 1) by lia. subst i.
    rewrite next_idx_last by lia.
    assert (Hp0 : length d - 1 < length (rev d)) by (rewrite rev_length; lia).
    destruct (Hidx _ Hp0) as [K1 _].
    rewrite (get_slot_rev rd') by lia. rewrite Hlen.
    replace (length d - 1) with (length d - S 0) by lia. apply K1.
    rewrite get_slot_rev by lia. replace (length d - S (length d - S 0)) with 0 by lia.
    destruct (get_slot d 0); [reflexivity | discriminate | discriminate].
  - rewrite next_idx_small by lia.
    rewrite (get_slot_rev rd') by lia. rewrite Hlen.
    replace (length d - S (S i)) with q by lia. exact G.
Qed.

Section Refine.
Variable sbits : N.
Variable hash : N -> N.

Notation TI := (TI sbits hash).
Notation status_ok := (status_ok sbits hash).
Notation reach_ok := (reach_ok hash).

Lemma abs_nil_of_len0 t : TI t -> len t = 0%N -> abs t = [].
Proof.
  intros HT H0. unfold abs. apply length_zero_iff_nil. pose proof (ti_len _ _ t HT). lia.
Qed.

Lemma iter_abs t : TI t -> iter t = abs t.
Proof. intros HT. unfold iter, abs. rewrite (ti_len _ _ t HT). apply iter_loop_vals. Qed.

Lemma iter_len_spec t : TI t ->
  iter t = abs t /\ NoDup (iter t) /\ len t = N.of_nat (length (abs t)).
Proof.
  intros HT. rewrite (iter_abs t HT). split; [reflexivity|].
  split; [exact (ti_nodup _ _ t HT) | exact (ti_len _ _ t HT)].
Qed.

Lemma clear_spec t : TI t -> TI (clear t) /\ abs (clear t) = [].
Proof.
  intros HT. unfold clear. destruct (N.eqb_spec (len t) 0) as [H0|H0].
  - split; [exact HT | apply abs_nil_of_len0; assumption].
  - rewrite (ti_len _ _ t HT).
    destruct (clear_loop_spec (data t)) as [C1 [C2 C3]].
    split; [|exact C2].
    constructor; cbn [data len free]; unfold size; cbn [data].
    + rewrite C1. exact (ti_size _ _ t HT).
    + rewrite C2. reflexivity.
    + pose proof (ti_free _ _ t HT). lia.
    + rewrite C1. exact (ti_free_pos _ _ t HT).
    + apply status_ok_novals. exact C2.
    + rewrite C2. constructor.
    + apply reach_ok_novals. exact C2.
Qed.

Lemma TI_all_free n : size_ok sbits n -> TI (mkTbl (repeat Free n) 0 (N.of_nat n)).
Proof.
  intros Hs. constructor; cbn [data len free]; unfold size; cbn [data].
  - rewrite repeat_length. exact Hs.
  - rewrite vals_repeat_free. reflexivity.
  - rewrite nfree_repeat_free. lia.
  - rewrite repeat_length. lia.
  - apply status_ok_repeat.
  - rewrite vals_repeat_free. constructor.
  - apply reach_ok_novals, vals_repeat_free.
Qed.

Lemma drain_spec t : TI t ->
  TI (fst (drain t)) /\ abs (fst (drain t)) = [] /\ snd (drain t) = abs t.
Proof.
  intros HT. unfold drain. cbn [fst snd]. split; [|split].
  - unfold sizeN. apply TI_all_free. exact (ti_size _ _ t HT).
  - unfold abs. cbn [data]. apply vals_repeat_free.
  - apply iter_abs. exact HT.
Qed.

Lemma with_capacity_spec c : (next_capacity c <= 2 ^ sbits)%N ->
  TI (with_capacity c) /\ abs (with_capacity c) = [].
Proof.
  intros Hc. unfold with_capacity. split.
  - pose proof (TI_all_free _ (next_capacity_size_ok sbits c Hc)) as H.
    rewrite N2Nat.id in H. exact H.
  - unfold abs. cbn [data]. apply vals_repeat_free.
Qed.

(** ** retain *)

Lemma size_ok_le_pow n : size_ok sbits n -> n <> 0 -> (N.of_nat n <= 2 ^ sbits)%N.
Proof.
  intros [->|[_ [k [Hk Hn]]]] H0; [contradiction|].
  rewrite Hn. apply N.pow_le_mono_r; [lia | exact Hk].
Qed.

Lemma retain_spec t pred : TI t ->
  exists t' dropped, retain t pred = Some (t', dropped) /\ TI t' /\
    Permutation (abs t') (filter pred (abs t)) /\
    Permutation dropped (filter (npred pred) (abs t)).
Proof.
  intros HT. unfold retain. destruct (N.eqb_spec (len t) 0) as [H0|H0].
  - exists t, []. rewrite (abs_nil_of_len0 t HT H0). cbn [filter].
    split; [reflexivity|]. split; [exact HT|]. split; apply Permutation_refl.
  - destruct (retain_loop (rev (data t)) pred (slot_is_free (get_slot (data t) 0))
                (len t) (len t) (free t) []) as [[[rd ln] fr] dr] eqn:E.
    pose proof (ti_len _ _ t HT) as Hlen.
    assert (Hi : len t = N.of_nat (length (vals (rev (data t)))))
      by (rewrite vals_rev, rev_length; exact Hlen).
    destruct (retain_loop_spec pred _ _ _ _ _ _ _ _ _ _ E Hi ltac:(lia))
      as [L1 [L2 [L3 [L4 [L5 [L6 L7]]]]]].
    rewrite rev_length in L1.
    rewrite vals_rev, filter_rev' in L2, L3. rewrite vals_rev, filter_rev', rev_length in L4.
    rewrite nfree_rev in L5. rewrite app_nil_r in L3.
    pose proof (idx_ok_shrinks (data t) rd L7 L1) as Hsh.
    assert (Hv : vals (rev rd) = filter pred (vals (data t)))
      by (rewrite vals_rev, L2; apply rev_involutive).
    pose proof (filter_partition_length pred (vals (data t))) as Hpl.
    assert (HT1 : TI (mkTbl (rev rd) ln fr)).
    { constructor; cbn [data len free]; unfold size; cbn [data].
      - rewrite rev_length, L1. exact (ti_size _ _ t HT).
      - rewrite Hv. lia.
      - rewrite nfree_rev. pose proof (ti_free _ _ t HT). lia.
      - rewrite rev_length, L1. intros Hn. pose proof (ti_free_pos _ _ t HT Hn). lia.
      - apply (status_ok_shrinks _ _ (data t)); [exact (ti_status _ _ t HT) | exact Hsh].
      - rewrite Hv. apply NoDup_filter. exact (ti_nodup _ _ t HT).
      - apply (reach_ok_shrinks _ (data t)); [exact (ti_reach _ _ t HT) | exact Hsh]. }
    assert (Hdr : Permutation dr (filter (npred pred) (abs t))).
    { eapply Permutation_trans; [exact L3|]. apply Permutation_sym, Permutation_rev. }
    destruct ((ln <? sizeN (mkTbl (rev rd) ln fr) / RATIO_D * (RATIO_D - RATIO_N))%N
              && (MIN_CAP <=? sizeN (mkTbl (rev rd) ln fr))%N) eqn:Esh.
    + (* shrink *)
      apply andb_true_iff in Esh as [S1 S2].
      apply N.ltb_lt in S1. apply N.leb_le in S2. rewrite spare_eq in S1.
      unfold MIN_CAP, sizeN in *.
      assert (Hcap : (next_capacity (len (mkTbl (rev rd) ln fr) + 0) <= 2 ^ sbits)%N).
      { cbn [len]. rewrite N.add_0_r.
        eapply N.le_trans;
          [apply (next_capacity_shrink_le sbits _ ln (ti_size _ _ _ HT1) S2 S1)|].
        apply size_ok_le_pow; [exact (ti_size _ _ _ HT1) | lia]. }
      destruct (reserve_rehash_spec sbits hash (mkTbl (rev rd) ln fr) 0
                  (ti_status _ _ _ HT1) (ti_nodup _ _ _ HT1) (ti_len _ _ _ HT1) Hcap)
        as [t2 [R1 [R2 [R3 _]]]].
      rewrite R1. exists t2, dr. split; [reflexivity|]. split; [exact R2|].
      split; [|exact Hdr].
      eapply Permutation_trans; [exact R3|]. unfold abs. cbn [data]. rewrite Hv.
      apply Permutation_refl.
    + exists (mkTbl (rev rd) ln fr), dr. split; [reflexivity|]. split; [exact HT1|].
      split; [|exact Hdr]. unfold abs. cbn [data]. rewrite Hv. apply Permutation_refl.
Qed.

(** ** Reference-set specification *)

Definition mem (k : N) (s : list N) : bool := existsb (N.eqb k) s.

Lemma mem_in k s : mem k s = true <-> In k s.
Proof.
  unfold mem. rewrite existsb_exists. split.
  - intros [x [Hx He]]. apply N.eqb_eq in He. subst x. exact Hx.
  - intros H. exists k. split; [exact H | apply N.eqb_refl].
Qed.

Lemma mem_not_in k s : mem k s = false <-> ~ In k s.
Proof.
  rewrite <- mem_in. destruct (mem k s); split; intros H.
  - discriminate.
  - exfalso. apply H. reflexivity.
  - discriminate.
  - reflexivity.
Qed.

(** A duplicate-free list plays the role of a finite set. *)
Definition spec_step (s : list N) (o : op) : list N * out :=
  match o with
  | OInsert k => if mem k s then (s, RBool false) else (k :: s, RBool true)
  | ORemove k =>
    if mem k s then (filter (fun x => negb (N.eqb k x)) s, ROpt (Some k)) else (s, ROpt None)
  | OLookup k => (s, ROpt (if mem k s then Some k else None))
  | ORetain m r =>
    (filter (retain_pred m r) s, RList (filter (npred (retain_pred m r)) s))
  | OReserve _ => (s, RUnit)
  | OClear => ([], RUnit)
  | ODrain => ([], RList s)
  | OIter => (s, RList s)
  | OLen => (s, RNum (N.of_nat (length s)))
  | OClone => (s, RUnit)
  | OWithCap _ => ([], RUnit)
  | ODrainPart j => ([], RList (firstn (N.to_nat j) s))
  | OIntoIter => ([], RList s)
  end.

(** results agree; lists are compared up to permutation *)
Definition res_equiv (rs r : out) : Prop :=
  match rs, r with
  | RList a, RList b => Permutation a b
  | _, _ => rs = r
  end.

(** [out_agrees o s r]: [r] is an admissible result of [o] on the set [s].  A
    partially consumed [Drain] may hand out any [min j |s|] distinct elements. *)
Definition out_agrees (o : op) (s : list N) (r : out) : Prop :=
  match o with
  | ODrainPart j =>
    exists l, r = RList l /\ NoDup l /\ incl l s /\
              length l = Nat.min (N.to_nat j) (length s)
  | _ => res_equiv (snd (spec_step s o)) r
  end.

(** the capacity the operation asks for passes [Status::check_capacity]
    (the real code panics otherwise; the model has no panic) *)
Definition op_ok (t : tbl) (o : op) : Prop :=
  match o with
  | OInsert _ => reserve_fits sbits t 1
  | OReserve n => reserve_fits sbits t n
  | OWithCap n => (next_capacity n <= 2 ^ sbits)%N
  | _ => True
  end.

Lemma spec_step_nodup s o : NoDup s -> NoDup (fst (spec_step s o)).
Proof.
  intros H. destruct o; cbn [spec_step fst]; try exact H; try constructor.
  - destruct (mem k s) eqn:E; cbn [fst]; [exact H|].
    constructor; [apply mem_not_in; exact E | exact H].
  - destruct (mem k s); cbn [fst]; [apply NoDup_filter; exact H | exact H].
  - apply NoDup_filter. exact H.
Qed.

Lemma remove_perm (s s' : list N) k : NoDup s -> Permutation s (k :: s') ->
  Permutation s' (filter (fun x => negb (N.eqb k x)) s).
Proof.
  intros Hnd Hp.
  pose proof (Permutation_NoDup Hp Hnd) as Hnd'. inversion Hnd' as [|? ? Hk Hs']; subst.
  apply NoDup_Permutation; [exact Hs' | apply NoDup_filter; exact Hnd|].
  intros x. rewrite filter_In. split.
  - intros Hx. split.
    + apply (Permutation_in _ (Permutation_sym Hp)). right. exact Hx.
    + destruct (N.eqb_spec k x) as [->|Hne]; [contradiction | reflexivity].
  - intros [Hx Hne]. apply (Permutation_in _ Hp) in Hx. destruct Hx as [->|Hx]; [|exact Hx].
    rewrite N.eqb_refl in Hne. discriminate.
Qed.

(** ** The single-step refinement theorem *)

Theorem step_correct t o t' r :
  TI t -> op_ok t o -> step sbits hash t o = (t', r) ->
  r <> RDiverge /\ TI t' /\ NoDup (abs t') /\
  Permutation (abs t') (fst (spec_step (abs t) o)) /\
  out_agrees o (abs t) r.
Proof.
  intros HT Hok Hstep.
  assert (Hgoal : r <> RDiverge /\ TI t' /\
                  Permutation (abs t') (fst (spec_step (abs t) o)) /\
                  out_agrees o (abs t) r).
  2:{ destruct Hgoal as [G1 [G2 [G3 G4]]]. split; [exact G1|]. split; [exact G2|].
      split; [exact (ti_nodup _ _ t' G2)|]. split; [exact G3 | exact G4]. }
  destruct o; cbn [step] in Hstep; cbn [op_ok] in Hok; unfold out_agrees; cbn [spec_step].
  - (* insert *)
    destruct (insert_spec sbits hash t k HT Hok) as [t1 [b [E [HT1 Hb]]]].
    rewrite E in Hstep. injection Hstep as <- <-.
    split; [discriminate|]. split; [exact HT1|].
    destruct Hb as [[-> [Hnin Hp]]|[-> [Hin Hp]]].
    + apply mem_not_in in Hnin. rewrite Hnin. cbn [fst snd res_equiv].
      split; [exact Hp | reflexivity].
    + apply mem_in in Hin. rewrite Hin. cbn [fst snd res_equiv].
      split; [exact Hp | reflexivity].
  - (* remove *)
    destruct (remove_spec sbits hash t k HT) as [t1 [r1 [E [HT1 Hr]]]].
    rewrite E in Hstep. injection Hstep as <- <-.
    split; [discriminate|]. split; [exact HT1|].
    destruct Hr as [[-> [Hin Hp]]|[-> [Hnin ->]]].
    + pose proof (remove_perm _ _ k (ti_nodup _ _ t HT) Hp) as Hp'.
      apply mem_in in Hin. rewrite Hin. cbn [fst snd res_equiv].
      split; [exact Hp' | reflexivity].
    + apply mem_not_in in Hnin. rewrite Hnin. cbn [fst snd res_equiv].
      split; [apply Permutation_refl | reflexivity].
  - (* lookup *)
    destruct (lookup_spec sbits hash t k HT) as [r1 [E Hr]].
    rewrite E in Hstep. injection Hstep as <- <-.
    split; [discriminate|]. split; [exact HT|]. cbn [fst snd res_equiv].
    split; [apply Permutation_refl|].
    destruct Hr as [[-> Hin]|[-> Hnin]].
    + apply mem_in in Hin. rewrite Hin. reflexivity.
    + apply mem_not_in in Hnin. rewrite Hnin. reflexivity.
  - (* retain *)
    destruct (retain_spec t (retain_pred m r0) HT) as [t1 [dr [E [HT1 [Hp Hd]]]]].
    rewrite E in Hstep. injection Hstep as <- <-.
    split; [discriminate|]. split; [exact HT1|]. cbn [fst snd res_equiv].
    split; [exact Hp | apply Permutation_sym; exact Hd].
  - (* reserve *)
    destruct (reserve_spec sbits hash t n HT Hok) as [t1 [E [HT1 [Hp _]]]].
    rewrite E in Hstep. injection Hstep as <- <-.
    split; [discriminate|]. split; [exact HT1|]. cbn [fst snd res_equiv].
    split; [exact Hp | reflexivity].
  - (* clear *)
    injection Hstep as <- <-. destruct (clear_spec t HT) as [HT1 Ha].
    split; [discriminate|]. split; [exact HT1|]. cbn [fst snd res_equiv].
    rewrite Ha. split; [apply Permutation_refl | reflexivity].
  - (* drain *)
    destruct (drain_spec t HT) as [HT1 [Ha Hl]].
    destruct (drain t) as [t1 l]. cbn [fst snd] in *. injection Hstep as <- <-.
    split; [discriminate|]. split; [exact HT1|]. cbn [fst snd res_equiv].
    rewrite Ha, Hl. split; apply Permutation_refl.
  - (* iter *)
    injection Hstep as <- <-.
    split; [discriminate|]. split; [exact HT|]. cbn [fst snd res_equiv].
    rewrite (iter_abs t HT). split; apply Permutation_refl.
  - (* len *)
    injection Hstep as <- <-.
    split; [discriminate|]. split; [exact HT|]. cbn [fst snd res_equiv].
    split; [apply Permutation_refl|]. unfold abs. rewrite (ti_len _ _ t HT). reflexivity.
  - (* clone *)
    injection Hstep as <- <-.
    split; [discriminate|]. split; [exact HT|]. cbn [fst snd res_equiv].
    split; [apply Permutation_refl | reflexivity].
  - (* with_capacity *)
    injection Hstep as <- <-. destruct (with_capacity_spec n Hok) as [HT1 Ha].
    split; [discriminate|]. split; [exact HT1|]. cbn [fst snd res_equiv].
    rewrite Ha. split; [apply Permutation_refl | reflexivity].
  - (* partially consumed drain *)
    destruct (drain_spec t HT) as [HT1 [Ha Hl]].
    destruct (drain t) as [t1 l]. cbn [fst snd] in *. injection Hstep as <- <-.
    split; [discriminate|]. split; [exact HT1|]. cbn [fst].
    rewrite Ha. split; [apply Permutation_refl|].
    exists (firstn (N.to_nat j) l). subst l. split; [reflexivity|].
    split; [apply NoDup_firstn; exact (ti_nodup _ _ t HT)|].
    split; [intros x Hx; apply (firstn_in _ _ _ Hx) | apply firstn_length].
  - (* into_iter *)
    injection Hstep as <- <-.
    split; [discriminate|]. split; [apply TI_empty|]. cbn [fst snd res_equiv].
    rewrite (iter_abs t HT). split; apply Permutation_refl.
Qed.

(** ** Lifting to operation sequences *)

(** every operation of the sequence passes the capacity check in the state in
    which it is executed *)
Fixpoint ops_ok (t : tbl) (ops : list op) : Prop :=
  match ops with
  | [] => True
  | o :: rest => op_ok t o /\ ops_ok (fst (step sbits hash t o)) rest
  end.

(** [sim_trace s ops outs]: starting from the set [s], the reference
    specification admits the outputs [outs] for [ops] (sets are duplicate-free
    lists up to permutation) and none of the outputs is a divergence. *)
Inductive sim_trace : list N -> list op -> list out -> Prop :=
| sim_nil s : sim_trace s [] []
| sim_cons s o ops s' r outs :
    NoDup s' ->
    Permutation s' (fst (spec_step s o)) ->
    out_agrees o s r ->
    r <> RDiverge ->
    sim_trace s' ops outs ->
    sim_trace s (o :: ops) (r :: outs).

Definition final (t : tbl) (ops : list op) : tbl :=
  fold_left (fun t o => fst (step sbits hash t o)) ops t.

Theorem run_correct_from ops : forall t, TI t -> ops_ok t ops ->
  sim_trace (abs t) ops (run sbits hash t ops) /\ TI (final t ops).
Proof.
  induction ops as [|o ops IH]; intros t HT Hok.
  - split; [constructor | exact HT].
  - destruct Hok as [Ho Hrest]. cbn [run final fold_left].
    destruct (step sbits hash t o) as [t' r] eqn:E. cbn [fst] in Hrest.
    destruct (step_correct t o t' r HT Ho E) as [S1 [S2 [S3 [S4 S5]]]].
    destruct (IH t' S2 Hrest) as [I1 I2].
    split; [|exact I2].
    apply (sim_cons (abs t) o ops (abs t') r); assumption.
Qed.

Theorem run_correct ops : ops_ok empty ops ->
  sim_trace [] ops (run sbits hash empty ops) /\ TI (final empty ops).
Proof. intros Hok. apply (run_correct_from ops empty (TI_empty sbits hash) Hok). Qed.

Lemma sim_trace_no_diverge s ops outs : sim_trace s ops outs -> ~ In RDiverge outs.
Proof.
  induction 1 as [|s o ops s' r outs _ _ _ Hr _ IH]; [intros []|].
  intros [H|H]; [apply Hr; exact H | apply IH; exact H].
Qed.

Theorem run_terminates ops : ops_ok empty ops -> ~ In RDiverge (run sbits hash empty ops).
Proof.
  intros Hok. apply (sim_trace_no_diverge [] ops). apply run_correct. exact Hok.
Qed.

(** ** A static sufficient condition for [ops_ok]

    [ops_ok] is phrased over the states of the run.  It follows from a bound on
    the sequence alone: at most [B] operations, every [reserve] / [with_capacity]
    argument at most [B], and a table for [2 * B] elements is still addressable. *)

Lemma next_pow2_mono x y : (x <= y)%N -> (next_pow2 x <= next_pow2 y)%N.
Proof.
  intros H. destruct (next_pow2_is_pow2 y) as [k Hk]. rewrite Hk.
  apply next_pow2_le_pow2. rewrite <- Hk. pose proof (next_pow2_ge y). lia.
Qed.

Lemma next_capacity_mono a b : (a <= b)%N -> (next_capacity a <= next_capacity b)%N.
Proof.
  intros H. unfold next_capacity.
  destruct (N.eqb_spec a 0) as [Ha|Ha]; [lia|].
  destruct (N.eqb_spec b 0) as [Hb|Hb]; [lia|].
  apply N.max_le_compat_r. apply next_pow2_mono.
  unfold RATIO_D, RATIO_N. lia.
Qed.

Definition op_small (B : N) (o : op) : Prop :=
  match o with
  | OReserve n => (n <= B)%N
  | OWithCap n => (n <= B)%N
  | _ => True
  end.

Lemma spec_step_length s o : length (fst (spec_step s o)) <= S (length s).
Proof.
  destruct o; cbn [spec_step fst length]; try lia.
  - destruct (mem k s); cbn [fst length]; lia.
  - destruct (mem k s); cbn [fst]; [|lia].
    pose proof (filter_partition_length (fun x => negb (N.eqb k x)) s). lia.
  - pose proof (filter_partition_length (retain_pred m r) s). lia.
Qed.

Lemma step_len_le t o : TI t -> op_ok t o ->
  TI (fst (step sbits hash t o)) /\ (len (fst (step sbits hash t o)) <= len t + 1)%N.
Proof.
  intros HT Hok. destruct (step sbits hash t o) as [t' r] eqn:E. cbn [fst].
  destruct (step_correct t o t' r HT Hok E) as [_ [HT' [_ [Hp _]]]].
  split; [exact HT'|].
  pose proof (Permutation_length Hp) as Hl. pose proof (spec_step_length (abs t) o) as Hs.
  pose proof (ti_len _ _ t HT). pose proof (ti_len _ _ t' HT'). unfold abs in *. lia.
Qed.

Lemma ops_ok_small_from B ops : (next_capacity (2 * B) <= 2 ^ sbits)%N ->
  Forall (op_small B) ops ->
  forall t, TI t -> (len t + N.of_nat (length ops) <= B)%N -> ops_ok t ops.
Proof.
  intros HB. induction 1 as [|o ops Ho _ IH]; intros t HT Hlen; [exact I|].
  cbn [length] in Hlen.
  assert (Hok : op_ok t o).
  { destruct o; cbn [op_ok op_small] in *; try exact I.
    - intros _. eapply N.le_trans; [apply next_capacity_mono|exact HB]. lia.
    - intros _. eapply N.le_trans; [apply next_capacity_mono|exact HB]. lia.
    - eapply N.le_trans; [apply next_capacity_mono|exact HB]. lia. }
  split; [exact Hok|].
  destruct (step_len_le t o HT Hok) as [HT' Hl]. apply IH; [exact HT' | lia].
Qed.

Theorem run_correct_small B ops :
  (N.of_nat (length ops) <= B)%N -> Forall (op_small B) ops ->
  (next_capacity (2 * B) <= 2 ^ sbits)%N ->
  sim_trace [] ops (run sbits hash empty ops) /\ ~ In RDiverge (run sbits hash empty ops).
Proof.
  intros Hl Hs HB.
  assert (Hok : ops_ok empty ops).
  { apply (ops_ok_small_from B ops HB Hs empty (TI_empty sbits hash)). cbn [len empty]. lia. }
  split; [exact (proj1 (run_correct ops Hok)) | exact (run_terminates ops Hok)].
Qed.

End Refine.

(** ** The hypotheses are satisfiable by a non-trivial reachable state

    31 status bits (Status = u32), total collisions (every key hashes to 0):
    14 insertions (the table grows from 16 to 32 slots on the 13th), three
    removals (3 and 5 leave tombstones, 14 has a free successor and is freed),
    an insertion that reuses the first tombstone, and a lookup. *)
Definition ex_ops : list op :=
  map OInsert [1;2;3;4;5;6;7;8;9;10;11;12;13;14]%N
  ++ [ORemove 3; ORemove 5; ORemove 14; OInsert 20; OLookup 7]%N.

Definition ex_state : tbl := final 31 (hash_fn 0) empty ex_ops.

Example ex_ops_ok : ops_ok 31 (hash_fn 0) empty ex_ops.
Proof. vm_compute. repeat split; intros; discriminate. Qed.

Example ex_state_shape :
  data ex_state =
    [Full 0 1; Full 0 2; Full 0 20; Full 0 4; Tomb; Full 0 6; Full 0 7; Full 0 8;
     Full 0 9; Full 0 10; Full 0 11; Full 0 12; Full 0 13]%N ++ repeat Free 19
  /\ len ex_state = 12%N /\ free ex_state = 19%N.
Proof. vm_compute. repeat split. Qed.

Example ex_state_TI : TI 31 (hash_fn 0) ex_state.
Proof. exact (proj2 (run_correct 31 (hash_fn 0) ex_ops ex_ops_ok)). Qed.

(** ... and the next operation on that state is admissible as well *)
Example ex_state_next_ok : op_ok 31 ex_state (OInsert 99) /\ op_ok 31 ex_state (ORetain 2 0).
Proof. split; [|exact I]. vm_compute. intros; discriminate. Qed.

Example ex_run_outputs :
  run 31 (hash_fn 0) empty ex_ops =
    repeat (RBool true) 14
    ++ [ROpt (Some 3); ROpt (Some 5); ROpt (Some 14); RBool true; ROpt (Some 7)]%N.
Proof. vm_compute. reflexivity. Qed.

Example ex_nonvacuous :
  TI 31 (hash_fn 0) ex_state /\
  op_ok 31 ex_state (OInsert 99) /\ op_ok 31 ex_state (ORetain 2 0) /\
  In Tomb (data ex_state) /\ size ex_state = 32 /\ len ex_state = 12%N.
Proof.
  split; [exact ex_state_TI|]. split; [exact (proj1 ex_state_next_ok)|].
  split; [exact I|]. vm_compute.
  split; [do 4 right; left; reflexivity | split; reflexivity].
Qed.
