(** * C17 proofs, part 1: slot lists, cyclic probing, capacity arithmetic.

    Everything here is independent of the hash function. *)

From Coq Require Import List NArith ZArith Bool Arith Lia Permutation.
From OxiVerif Require Import Tbl.LinearHash.
Import ListNotations.

#[local] Ltac Zify.zify_post_hook ::= Z.to_euclidean_division_equations.

Arguments N.add : simpl never.
Arguments N.sub : simpl never.
Arguments N.mul : simpl never.
Arguments N.div : simpl never.
Arguments N.modulo : simpl never.
Arguments N.pow : simpl never.
Arguments Nat.modulo : simpl never.
Arguments Nat.div : simpl never.

(** ** Values and free slots of a slot list *)

Definition sv (s : slot) : list N := match s with Full _ v => [v] | _ => [] end.
Definition vals (d : list slot) : list N := flat_map sv d.
Definition nfree (d : list slot) : nat := length (filter slot_is_free d).

Lemma vals_app a b : vals (a ++ b) = vals a ++ vals b.
Proof. apply flat_map_app. Qed.

Lemma nfree_app a b : nfree (a ++ b) = nfree a + nfree b.
Proof. unfold nfree. rewrite filter_app, app_length. reflexivity. Qed.

Lemma vals_cons s d : vals (s :: d) = sv s ++ vals d.
Proof. reflexivity. Qed.

Lemma nfree_cons s d : nfree (s :: d) = (if slot_is_free s then 1 else 0) + nfree d.
Proof. unfold nfree. cbn [filter]. destruct (slot_is_free s); reflexivity. Qed.

Lemma vals_rev d : vals (rev d) = rev (vals d).
Proof.
  induction d as [|s d IH]; [reflexivity|].
  cbn [rev]. rewrite vals_app, IH, (vals_cons s d), rev_app_distr.
  destruct s; cbn; rewrite ?app_nil_r; reflexivity.
Qed.

Lemma nfree_rev d : nfree (rev d) = nfree d.
Proof.
  induction d as [|s d IH]; [reflexivity|].
  cbn [rev]. rewrite nfree_app, IH, !nfree_cons. cbn. lia.
Qed.

Lemma vals_repeat_free c : vals (repeat Free c) = [].
Proof. induction c; [reflexivity|]. cbn [repeat]. rewrite vals_cons. exact IHc. Qed.

Lemma nfree_repeat_free c : nfree (repeat Free c) = c.
Proof. induction c; [reflexivity|]. cbn [repeat]. rewrite nfree_cons, IHc. reflexivity. Qed.

Lemma vals_nfree_le d : length (vals d) + nfree d <= length d.
Proof.
  induction d as [|s d IH]; [cbn; lia|].
  rewrite vals_cons, nfree_cons, app_length. destruct s; cbn [sv slot_is_free length]; lia.
Qed.

Lemma nfree_pos_ex d : 0 < nfree d -> exists f, f < length d /\ get_slot d f = Free.
Proof.
  induction d as [|s d IH]; intros H.
  - cbn in H. lia.
  - destruct s.
    + exists 0. split; [cbn; lia | reflexivity].
    + rewrite nfree_cons in H. cbn [slot_is_free] in H.
      destruct IH as [f [Hf Hg]]; [lia|]. exists (S f). split; [cbn; lia | exact Hg].
    + rewrite nfree_cons in H. cbn [slot_is_free] in H.
      destruct IH as [f [Hf Hg]]; [lia|]. exists (S f). split; [cbn; lia | exact Hg].
Qed.

Lemma in_vals_iff d v :
  In v (vals d) <-> exists i st, i < length d /\ get_slot d i = Full st v.
Proof.
  unfold vals. rewrite in_flat_map. split.
  - intros [s [Hin Hv]]. destruct s; cbn in Hv; try contradiction.
    destruct Hv as [Hv|[]]. subst v0.
    destruct (In_nth _ _ Free Hin) as [i [Hi Hn]]. exists i, st. split; assumption.
  - intros [i [st [Hi Hg]]]. exists (Full st v). split.
    + unfold get_slot in Hg. rewrite <- Hg. apply nth_In. exact Hi.
    + cbn. left. reflexivity.
Qed.

(** ** [set_slot] *)

Lemma length_set_slot d i s : length (set_slot d i s) = length d.
Proof.
  revert i. induction d as [|x d IH]; intros i; [reflexivity|].
  destruct i; cbn [set_slot length]; [reflexivity|]. rewrite IH. reflexivity.
Qed.

Lemma get_set_same d i s : i < length d -> get_slot (set_slot d i s) i = s.
Proof.
  revert i. induction d as [|x d IH]; intros i Hi; [cbn in Hi; lia|].
  destruct i; [reflexivity|]. cbn [set_slot]. unfold get_slot. cbn [nth].
  apply IH. cbn in Hi. lia.
Qed.

Lemma get_set_other d i i' s : i' <> i -> get_slot (set_slot d i s) i' = get_slot d i'.
Proof.
  revert i i'. induction d as [|x d IH]; intros i i' Hne; [reflexivity|].
  destruct i; destruct i'; try reflexivity; try lia.
  cbn [set_slot]. unfold get_slot. cbn [nth]. apply IH. lia.
Qed.

Lemma set_slot_split d i s : i < length d ->
  exists a b, d = a ++ get_slot d i :: b /\ set_slot d i s = a ++ s :: b /\ length a = i.
Proof.
  revert i. induction d as [|x d IH]; intros i Hi; [cbn in Hi; lia|].
  destruct i.
  - exists [], d. repeat split.
  - destruct (IH i) as [a [b [H1 [H2 H3]]]]; [cbn in Hi; lia|].
    exists (x :: a), b. cbn [set_slot app length]. unfold get_slot in *. cbn [nth].
    repeat split; [f_equal; exact H1 | f_equal; exact H2 | f_equal; exact H3].
Qed.

Lemma get_set_nonfree d i s x : i < length d -> s <> Free ->
  get_slot d x <> Free -> get_slot (set_slot d i s) x <> Free.
Proof.
  intros Hi Hs Hx. destruct (Nat.eq_dec x i) as [->|Hne].
  - rewrite get_set_same; assumption.
  - rewrite get_set_other; assumption.
Qed.

(** ** Cyclic probing *)

Definition probe (n h j : nat) : nat := (h + j) mod n.

Lemma probe_lt n h j : n <> 0 -> probe n h j < n.
Proof. intros Hn. unfold probe. apply Nat.mod_upper_bound. exact Hn. Qed.

Lemma probe_0 n h : h < n -> probe n h 0 = h.
Proof. intros Hh. unfold probe. rewrite Nat.add_0_r. apply Nat.mod_small. exact Hh. Qed.

Lemma next_probe n h j : n <> 0 -> next_idx (probe n h j) n = probe n h (S j).
Proof.
  intros Hn. unfold next_idx, probe.
  replace (S ((h + j) mod n)) with ((h + j) mod n + 1) by lia.
  rewrite Nat.add_mod_idemp_l by exact Hn. f_equal. lia.
Qed.

Lemma probe_surj n h f : h < n -> f < n -> exists j, j < n /\ probe n h j = f.
Proof.
  intros Hh Hf. unfold probe. destruct (le_lt_dec h f) as [Hle|Hlt].
  - exists (f - h). split; [lia|]. replace (h + (f - h)) with f by lia.
    apply Nat.mod_small. exact Hf.
  - exists (f + n - h). split; [lia|]. replace (h + (f + n - h)) with (f + 1 * n) by lia.
    rewrite Nat.mod_add by lia. apply Nat.mod_small. exact Hf.
Qed.

Lemma home_lt x n : n <> 0 -> home x n < n.
Proof.
  intros Hn. unfold home.
  assert (H : (x mod N.of_nat n < N.of_nat n)%N) by (apply N.mod_lt; lia).
  lia.
Qed.

Lemma next_idx_lt i n : n <> 0 -> next_idx i n < n.
Proof. intros Hn. unfold next_idx. apply Nat.mod_upper_bound. exact Hn. Qed.

Lemma next_idx_small i n : S i < n -> next_idx i n = S i.
Proof. intros H. unfold next_idx. apply Nat.mod_small. exact H. Qed.

Lemma next_idx_last n : n <> 0 -> next_idx (n - 1) n = 0.
Proof.
  intros H. unfold next_idx. replace (S (n - 1)) with n by lia. apply Nat.mod_same. exact H.
Qed.

(** first position at which a boolean predicate holds *)
Lemma first_true_aux (P : nat -> bool) : forall m,
  (forall j, j < m -> P j = false) \/
  (exists j1, j1 < m /\ P j1 = true /\ forall j', j' < j1 -> P j' = false).
Proof.
  induction m as [|m IH].
  - left. intros j Hj. lia.
  - destruct IH as [IH|[j1 [H1 [H2 H3]]]].
    + destruct (P m) eqn:E.
      * right. exists m. repeat split; [lia | exact E | exact IH].
      * left. intros j Hj. destruct (Nat.eq_dec j m) as [->|Hne]; [exact E | apply IH; lia].
    + right. exists j1. repeat split; [lia | exact H2 | exact H3].
Qed.

Lemma first_true (P : nat -> bool) m : P m = true ->
  exists j1, j1 <= m /\ P j1 = true /\ forall j', j' < j1 -> P j' = false.
Proof.
  intros Hm. destruct (first_true_aux P m) as [H|[j1 [H1 [H2 H3]]]].
  - exists m. repeat split; [lia | exact Hm | exact H].
  - exists j1. repeat split; [lia | exact H2 | exact H3].
Qed.

(** ** Capacity arithmetic *)

Definition size_ok (sbits : N) (n : nat) : Prop :=
  n = 0 \/ (16 <= n /\ exists k, (k <= sbits)%N /\ N.of_nat n = (2 ^ k)%N).

Lemma next_pow2_ge x : (x <= next_pow2 x)%N.
Proof.
  unfold next_pow2. destruct (N.leb_spec x 1) as [H|H]; [lia|].
  pose proof (N.log2_up_spec x H) as [_ H2]. exact H2.
Qed.

Lemma next_pow2_is_pow2 x : exists k, next_pow2 x = (2 ^ k)%N.
Proof.
  unfold next_pow2. destruct (N.leb x 1).
  - exists 0%N. reflexivity.
  - exists (N.log2_up x). reflexivity.
Qed.

Lemma next_pow2_le_pow2 x k : (x <= 2 ^ k)%N -> (next_pow2 x <= 2 ^ k)%N.
Proof.
  intros H. unfold next_pow2. destruct (N.leb_spec x 1) as [H1|H1].
  - assert (0 < 2 ^ k)%N by (apply N.neq_0_lt_0, N.pow_nonzero; lia). lia.
  - apply N.pow_le_mono_r; [lia|]. apply N.log2_up_le_pow2; [lia | exact H].
Qed.

Lemma spare_eq x : (x / RATIO_D * (RATIO_D - RATIO_N) = x / 4)%N.
Proof. unfold RATIO_D, RATIO_N. change (4 - 3)%N with 1%N. apply N.mul_1_r. Qed.

Lemma div4_bounds x : (4 * (x / 4) <= x < 4 * (x / 4) + 4)%N.
Proof.
  lia.
Qed.

Lemma next_capacity_0 r : next_capacity r = 0%N <-> r = 0%N.
Proof.
  unfold next_capacity, MIN_CAP. destruct (N.eqb_spec r 0) as [->|H].
  - split; reflexivity.
  - split; intros H1; lia.
Qed.

Lemma next_capacity_gt r : r <> 0%N -> (r + 1 <= next_capacity r)%N.
Proof.
  intros Hr. unfold next_capacity, MIN_CAP, RATIO_D, RATIO_N.
  destruct (N.eqb_spec r 0) as [H|_]; [contradiction|].
  pose proof (next_pow2_ge (r * 4 / 3)) as H1.
  lia.
Qed.

Lemma next_capacity_ge16 r : r <> 0%N -> (16 <= next_capacity r)%N.
Proof.
  intros Hr. unfold next_capacity, MIN_CAP.
  destruct (N.eqb_spec r 0) as [H|_]; [contradiction|]. lia.
Qed.

Lemma next_capacity_pow2 r : r <> 0%N -> exists k, next_capacity r = (2 ^ k)%N.
Proof.
  intros Hr. unfold next_capacity, MIN_CAP.
  destruct (N.eqb_spec r 0) as [H|_]; [contradiction|].
  destruct (next_pow2_is_pow2 (r * RATIO_D / RATIO_N)) as [k Hk].
  destruct (N.max_spec (next_pow2 (r * RATIO_D / RATIO_N)) 16) as [[_ ->]|[_ ->]].
  - exists 4%N. reflexivity.
  - exists k. exact Hk.
Qed.

Lemma next_capacity_size_ok sbits r :
  (next_capacity r <= 2 ^ sbits)%N -> size_ok sbits (N.to_nat (next_capacity r)).
Proof.
  intros Hle. destruct (N.eq_dec r 0) as [->|Hr].
  - left. reflexivity.
  - right. pose proof (next_capacity_ge16 r Hr) as H16.
    destruct (next_capacity_pow2 r Hr) as [k Hk].
    split; [lia|]. exists k. split.
    + rewrite Hk in Hle. apply N.pow_le_mono_r_iff in Hle; [exact Hle | lia].
    + rewrite N2Nat.id. exact Hk.
Qed.

(** shrinking never asks for more slots than the table already has *)
Lemma next_capacity_shrink_le sbits n ln :
  size_ok sbits n -> (16 <= N.of_nat n)%N -> (ln < N.of_nat n / 4)%N ->
  (next_capacity ln <= N.of_nat n)%N.
Proof.
  intros [->|[H16 [k [Hk Hn]]]] Hge Hlt; [cbn in Hge; lia|].
  unfold next_capacity, MIN_CAP, RATIO_D, RATIO_N.
  destruct (N.eqb_spec ln 0) as [_|Hne]; [lia|].
  apply N.max_lub; [|exact Hge].
  rewrite Hn. apply next_pow2_le_pow2. rewrite <- Hn.
  pose proof (div4_bounds (N.of_nat n)) as Hd.
  lia.
Qed.

(** the status keeps enough bits to address any admissible table *)
Lemma home_status sbits n x : size_ok sbits n -> n <> 0 -> home (status sbits x) n = home x n.
Proof.
  intros [->|[_ [k [Hk Hn]]]] Hn0; [contradiction|].
  unfold home, status. f_equal. rewrite Hn.
  replace sbits with (k + (sbits - k))%N by lia.
  rewrite N.pow_add_r.
  assert (Ha : (2 ^ k <> 0)%N) by (apply N.pow_nonzero; lia).
  assert (Hb : (2 ^ (sbits - k) <> 0)%N) by (apply N.pow_nonzero; lia).
  rewrite N.mod_mul_r by assumption.
  rewrite (N.mul_comm (2 ^ k)), N.mod_add by exact Ha.
  apply N.mod_mod. exact Ha.
Qed.
