(** * C17 proofs, part 2: the table invariant and the probing operations
    (find, find_or_find_insert_slot, insert, remove, reserve / rehash). *)

From Coq Require Import List NArith ZArith Bool Arith Lia Permutation.
From OxiVerif Require Import Tbl.LinearHash Tbl.LinearHashProofsBase.
Import ListNotations.


(** ** More facts about [set_slot] *)

Lemma vals_set_slot d i s : i < length d ->
  exists a b, vals d = a ++ sv (get_slot d i) ++ b /\ vals (set_slot d i s) = a ++ sv s ++ b.
Proof.
  intros Hi. destruct (set_slot_split d i s Hi) as [a [b [H1 [H2 _]]]].
  exists (vals a), (vals b). split.
  - rewrite H1 at 1. rewrite vals_app, vals_cons. reflexivity.
  - rewrite H2. rewrite vals_app, vals_cons. reflexivity.
Qed.

Lemma nfree_set_slot d i s : i < length d ->
  nfree (set_slot d i s) + (if slot_is_free (get_slot d i) then 1 else 0)
  = nfree d + (if slot_is_free s then 1 else 0).
Proof.
  intros Hi. destruct (set_slot_split d i s Hi) as [a [b [H1 [H2 _]]]].
  rewrite H2. rewrite H1 at 2. rewrite !nfree_app, !nfree_cons. lia.
Qed.

Lemma vals_fill d i st v : i < length d -> sv (get_slot d i) = [] ->
  Permutation (vals (set_slot d i (Full st v))) (v :: vals d).
Proof.
  intros Hi Hs. destruct (vals_set_slot d i (Full st v) Hi) as [a [b [Hv Hv']]].
  rewrite Hs in Hv. rewrite Hv, Hv'. apply Permutation_sym, Permutation_middle.
Qed.

Lemma in_set_slot d i s x : In x (set_slot d i s) -> x = s \/ In x d.
Proof.
  revert i. induction d as [|y d IH]; intros i H; [contradiction|].
  destruct i; cbn [set_slot] in H; destruct H as [H|H].
  - left. symmetry. exact H.
  - right. right. exact H.
  - right. left. exact H.
  - destruct (IH i H) as [H1|H1]; [left; exact H1 | right; right; exact H1].
Qed.

Lemma get_slot_in d i : i < length d -> In (get_slot d i) d.
Proof. intros Hi. apply nth_In. exact Hi. Qed.

(** first probe position at which a slot predicate holds *)
Lemma first_hit (P : slot -> bool) d h : P Free = true -> h < length d ->
  (exists f, f < length d /\ get_slot d f = Free) ->
  exists j1, j1 < length d /\ P (get_slot d (probe (length d) h j1)) = true /\
    forall j', j' < j1 -> P (get_slot d (probe (length d) h j')) = false.
Proof.
  intros HP Hh [f [Hf Hg]]. destruct (probe_surj _ h f Hh Hf) as [jf [Hjf Hp]].
  destruct (first_true (fun j => P (get_slot d (probe (length d) h j))) jf) as [j1 [H1 [H2 H3]]].
  - cbn beta. rewrite Hp, Hg. exact HP.
  - exists j1. repeat split; [lia | exact H2 | exact H3].
Qed.

Definition stop (hs : N) (eq : N -> bool) (s : slot) : bool :=
  match s with Free => true | Tomb => false | Full st v => N.eqb st hs && eq v end.

Lemma stop_false_nonfree hs eq s : stop hs eq s = false -> s <> Free.
Proof. intros H ->. discriminate. Qed.

(** ** The three probing loops *)

Lemma fofis_loop_spec d hs eq h : length d <> 0 -> forall m j fuel ft, m < fuel ->
  (forall j', j <= j' < j + m -> stop hs eq (get_slot d (probe (length d) h j')) = false) ->
  stop hs eq (get_slot d (probe (length d) h (j + m))) = true ->
  (forall t, ft = Some t -> exists jt, jt < j /\ probe (length d) h jt = t /\ get_slot d t = Tomb) ->
  exists r, fofis_loop fuel d (probe (length d) h j) hs eq ft = Some r /\
    match r with
    | inl i => i = probe (length d) h (j + m) /\ get_slot d i <> Free
    | inr i => get_slot d (probe (length d) h (j + m)) = Free /\
               exists jt, jt <= j + m /\ probe (length d) h jt = i /\
                          (get_slot d i = Tomb \/ get_slot d i = Free)
    end.
Proof.
  intros Hn. induction m as [|m IH]; intros j fuel ft Hf Hns Hs Hft.
  - destruct fuel as [|f]; [lia|]. rewrite Nat.add_0_r in *. cbn [fofis_loop].
    destruct (get_slot d (probe (length d) h j)) as [| |st v] eqn:E; cbn [stop] in Hs.
    + eexists. split; [reflexivity|]. cbn beta iota. split; [reflexivity|].
      destruct ft as [t|].
      * destruct (Hft t eq_refl) as [jt [H1 [H2 H3]]].
        exists jt. repeat split; [lia | exact H2 | left; exact H3].
      * exists j. repeat split; [lia | right; exact E].
    + discriminate.
    + rewrite Hs. eexists. split; [reflexivity|]. cbn beta iota.
      split; [reflexivity | rewrite E; discriminate].
  - destruct fuel as [|f]; [lia|]. cbn [fofis_loop].
    assert (H0 := Hns j ltac:(lia)).
    replace (j + S m) with (S j + m) in * by lia.
    destruct (get_slot d (probe (length d) h j)) as [| |st v] eqn:E; cbn [stop] in H0.
    + discriminate.
    + rewrite next_probe by exact Hn.
      apply IH; [lia | intros j' Hj'; apply Hns; lia | exact Hs |].
      intros t Ht. destruct ft as [t0|].
      * destruct (Hft t0 eq_refl) as [jt [H1 [H2 H3]]].
        injection Ht as <-. exists jt. repeat split; [lia | exact H2 | exact H3].
      * injection Ht as <-. exists j. repeat split; [lia | exact E].
    + rewrite H0. rewrite next_probe by exact Hn.
      apply IH; [lia | intros j' Hj'; apply Hns; lia | exact Hs |].
      intros t Ht. destruct (Hft t Ht) as [jt [H1 [H2 H3]]].
      exists jt. repeat split; [lia | exact H2 | exact H3].
Qed.

(** [find] is [find_or_find_insert_slot] that forgets the insertion slot *)
Lemma find_loop_fofis d hs eq : forall fuel i ft,
  find_loop fuel d i hs eq =
  match fofis_loop fuel d i hs eq ft with
  | Some (inl j) => Some (Some j) | Some (inr _) => Some None | None => None
  end.
Proof.
  induction fuel as [|f IH]; intros i ft; [reflexivity|]. cbn [find_loop fofis_loop].
  destruct (get_slot d i) as [| |st v]; [reflexivity | apply IH |].
  destruct (N.eqb st hs && eq v); [reflexivity | apply IH].
Qed.

Lemma place_spec d st v h : length d <> 0 -> forall m j fuel, m < fuel ->
  (forall j', j <= j' < j + m -> get_slot d (probe (length d) h j') <> Free) ->
  get_slot d (probe (length d) h (j + m)) = Free ->
  place fuel d (probe (length d) h j) st v
  = Some (set_slot d (probe (length d) h (j + m)) (Full st v)).
Proof.
  intros Hn. induction m as [|m IH]; intros j fuel Hf Hns Hs.
  - destruct fuel as [|f]; [lia|]. rewrite Nat.add_0_r in *. cbn [place].
    rewrite Hs. reflexivity.
  - destruct fuel as [|f]; [lia|]. cbn [place].
    assert (H0 := Hns j ltac:(lia)).
    replace (j + S m) with (S j + m) in * by lia.
    destruct (get_slot d (probe (length d) h j)) as [| |st0 v0] eqn:E.
    + contradiction.
    + rewrite next_probe by exact Hn.
      apply IH; [lia | intros j' Hj'; apply Hns; lia | exact Hs].
    + rewrite next_probe by exact Hn.
      apply IH; [lia | intros j' Hj'; apply Hns; lia | exact Hs].
Qed.

Section Core.
Variable sbits : N.
Variable hash : N -> N.

(** ** The invariant *)

Definition status_ok (d : list slot) : Prop :=
  forall st v, In (Full st v) d -> st = status sbits (hash v).

(** slot [i] is reached from [h] by cyclic probing without crossing a FREE slot *)
Definition path (d : list slot) (h i : nat) : Prop :=
  exists j, probe (length d) h j = i /\
    forall j', j' < j -> get_slot d (probe (length d) h j') <> Free.

Definition reach_ok (d : list slot) : Prop :=
  forall i st v, i < length d -> get_slot d i = Full st v ->
    path d (home (hash v) (length d)) i.

Record TI (t : tbl) : Prop := mkTI {
  ti_size : size_ok sbits (size t);
  ti_len : len t = N.of_nat (length (vals (data t)));
  ti_free : (free t <= N.of_nat (nfree (data t)))%N;
  ti_free_pos : size t <> 0 -> (1 <= free t)%N;
  ti_status : status_ok (data t);
  ti_nodup : NoDup (vals (data t));
  ti_reach : reach_ok (data t)
}.

Definition abs (t : tbl) : list N := vals (data t).

Lemma status_ok_nil : status_ok [].
Proof. intros st v []. Qed.

Lemma reach_ok_nil : reach_ok [].
Proof. intros i st v Hi. cbn in Hi. lia. Qed.

Lemma TI_empty : TI empty.
Proof.
  constructor; cbn.
  - left. reflexivity.
  - reflexivity.
  - lia.
  - intros H. contradiction.
  - apply status_ok_nil.
  - constructor.
  - apply reach_ok_nil.
Qed.

Lemma status_ok_repeat c : status_ok (repeat Free c).
Proof. intros st v H. apply repeat_spec in H. discriminate. Qed.

Lemma reach_ok_novals d : vals d = [] -> reach_ok d.
Proof.
  intros Hv i st v Hi Hg.
  assert (H : In v (vals d)) by (apply in_vals_iff; exists i, st; split; assumption).
  rewrite Hv in H. contradiction.
Qed.

Lemma status_ok_novals d : vals d = [] -> status_ok d.
Proof.
  intros Hv st v Hin. destruct (In_nth _ _ Free Hin) as [i [Hi Hn]].
  assert (H : In v (vals d)) by (apply in_vals_iff; exists i, st; split; assumption).
  rewrite Hv in H. contradiction.
Qed.

Lemma status_ok_set d i s : status_ok d ->
  (forall st v, s = Full st v -> st = status sbits (hash v)) -> status_ok (set_slot d i s).
Proof.
  intros Hd Hs st v Hin. apply in_set_slot in Hin as [H|H].
  - apply Hs. symmetry. exact H.
  - apply Hd. exact H.
Qed.

Lemma status_ok_get d i st v : status_ok d -> i < length d -> get_slot d i = Full st v ->
  st = status sbits (hash v).
Proof. intros Hd Hi Hg. apply Hd. rewrite <- Hg. apply get_slot_in. exact Hi. Qed.

Lemma TI_size_pos t : TI t -> size t <> 0 ->
  exists f, f < length (data t) /\ get_slot (data t) f = Free.
Proof.
  intros HT Hn. apply nfree_pos_ex.
  pose proof (ti_free_pos t HT Hn). pose proof (ti_free t HT). lia.
Qed.

Lemma TI_len_size t : TI t -> len t <> 0%N -> size t <> 0.
Proof.
  intros HT Hl. pose proof (ti_len t HT). pose proof (vals_nfree_le (data t)).
  unfold size. lia.
Qed.

(** ** Filling a non-full slot *)

Lemma path_fill d i s h x : i < length d -> s <> Free -> path d h x -> path (set_slot d i s) h x.
Proof.
  intros Hi Hs [j [Hj Hp]]. exists j. rewrite length_set_slot. split; [exact Hj|].
  intros j' Hj'. apply get_set_nonfree; [exact Hi | exact Hs | apply Hp; exact Hj'].
Qed.

Lemma reach_ok_fill d i st v : i < length d -> reach_ok d ->
  path d (home (hash v) (length d)) i -> reach_ok (set_slot d i (Full st v)).
Proof.
  intros Hi Hr Hp i0 st0 v0 Hi0 Hg. rewrite length_set_slot in *.
  destruct (Nat.eq_dec i0 i) as [->|Hne].
  - rewrite get_set_same in Hg by exact Hi. injection Hg as <- <-.
    apply path_fill; [exact Hi | discriminate | exact Hp].
  - rewrite get_set_other in Hg by exact Hne.
    apply path_fill; [exact Hi | discriminate | apply (Hr i0 st0 v0 Hi0 Hg)].
Qed.

Lemma reach_ok_tomb d i : i < length d -> reach_ok d -> reach_ok (set_slot d i Tomb).
Proof.
  intros Hi Hr i0 st0 v0 Hi0 Hg. rewrite length_set_slot in *.
  destruct (Nat.eq_dec i0 i) as [->|Hne].
  - rewrite get_set_same in Hg by exact Hi. discriminate.
  - rewrite get_set_other in Hg by exact Hne.
    apply path_fill; [exact Hi | discriminate | apply (Hr i0 st0 v0 Hi0 Hg)].
Qed.

(** ** Freeing slots whose successor is free *)

Definition shrinks (d d' : list slot) : Prop :=
  length d' = length d /\
  forall i, i < length d ->
    (forall st v, get_slot d' i = Full st v -> get_slot d i = Full st v) /\
    (get_slot d' i = Free ->
       get_slot d i = Free \/ get_slot d' (next_idx i (length d)) = Free).

Lemma reach_ok_shrinks d d' : reach_ok d -> shrinks d d' -> reach_ok d'.
Proof.
  intros Hr [Hlen Hs] i st v Hi Hg. rewrite Hlen in *.
  assert (Hn : length d <> 0) by lia.
  destruct (Hs i Hi) as [Hfull _]. pose proof (Hfull st v Hg) as Hg0.
  destruct (Hr i st v Hi Hg0) as [j [Hj Hp]].
  exists j. rewrite Hlen. split; [exact Hj|].
  set (h := home (hash v) (length d)) in *.
  assert (Hback : forall m j', j' + S m = j -> get_slot d' (probe (length d) h j') = Free -> False).
  { induction m as [|m IH]; intros j' Hjm Hf.
    - destruct (Hs (probe (length d) h j') (probe_lt _ _ _ Hn)) as [_ H2].
      destruct (H2 Hf) as [H3|H3].
      + apply (Hp j'); [lia | exact H3].
      + rewrite next_probe in H3 by exact Hn. replace (S j') with j in H3 by lia.
        rewrite Hj in H3. congruence.
    - destruct (Hs (probe (length d) h j') (probe_lt _ _ _ Hn)) as [_ H2].
      destruct (H2 Hf) as [H3|H3].
      + apply (Hp j'); [lia | exact H3].
      + rewrite next_probe in H3 by exact Hn. apply (IH (S j')); [lia | exact H3]. }
  intros j' Hj' Hf. apply (Hback (j - j' - 1) j'); [lia | exact Hf].
Qed.

Lemma status_ok_shrinks d d' : status_ok d -> shrinks d d' -> status_ok d'.
Proof.
  intros Hd [Hlen Hs] st v Hin. destruct (In_nth _ _ Free Hin) as [i [Hi Hn]].
  rewrite Hlen in Hi. destruct (Hs i Hi) as [Hfull _].
  apply (status_ok_get d i st v Hd Hi). apply Hfull. exact Hn.
Qed.

(** ** find / get *)

Lemma stop_free_not_in d k j1 :
  status_ok d -> reach_ok d ->
  get_slot d (probe (length d) (home (hash k) (length d)) j1) = Free ->
  (forall j', j' < j1 ->
     stop (status sbits (hash k)) (N.eqb k)
          (get_slot d (probe (length d) (home (hash k) (length d)) j')) = false) ->
  ~ In k (vals d).
Proof.
  intros Hst Hr Hfree Hns Hin. apply in_vals_iff in Hin as [i [st [Hi Hg]]].
  destruct (Hr i st k Hi Hg) as [j [Hj Hp]].
  pose proof (status_ok_get d i st k Hst Hi Hg) as ->.
  destruct (lt_eq_lt_dec j j1) as [[Hlt|Heq]|Hgt].
  - specialize (Hns j Hlt). rewrite Hj, Hg in Hns. cbn [stop] in Hns.
    rewrite !N.eqb_refl in Hns. discriminate.
  - subst j1. rewrite Hj in Hfree. congruence.
  - apply (Hp j1 Hgt). exact Hfree.
Qed.

Lemma stop_full hs k st v : stop hs (N.eqb k) (Full st v) = true -> st = hs /\ v = k.
Proof.
  cbn [stop]. intros H. apply andb_true_iff in H as [H1 H2].
  apply N.eqb_eq in H1. apply N.eqb_eq in H2. split; congruence.
Qed.

Lemma fofis_spec t k : TI t -> length (data t) <> 0 ->
  exists r, fofis_loop (length (data t)) (data t) (home (hash k) (length (data t)))
              (status sbits (hash k)) (N.eqb k) None = Some r /\
    match r with
    | inl i => i < length (data t) /\ get_slot (data t) i = Full (status sbits (hash k)) k
    | inr i => ~ In k (vals (data t)) /\ i < length (data t) /\
               (get_slot (data t) i = Tomb \/ get_slot (data t) i = Free) /\
               path (data t) (home (hash k) (length (data t))) i
    end.
Proof.
  intros HT Hn. set (d := data t). set (h := home (hash k) (length d)). set (hs := status sbits (hash k)).
  destruct (first_hit (stop hs (N.eqb k)) d h eq_refl (home_lt _ _ Hn) (TI_size_pos t HT Hn))
    as [j1 [Hj1 [Hs Hns]]].
  destruct (fofis_loop_spec d hs (N.eqb k) h Hn j1 0 (length d) None Hj1) as [r [HF Hr]].
  { intros j' Hj'. apply Hns. lia. }
  { exact Hs. }
  { intros t0 Ht0. discriminate. }
  rewrite probe_0 in HF by (apply home_lt; exact Hn). cbn [Nat.add] in Hr.
  exists r. split; [exact HF|]. destruct r as [i|i].
  - destruct Hr as [-> Hnf]. split; [apply probe_lt; exact Hn|].
    destruct (get_slot d (probe (length d) h j1)) as [| |st v] eqn:E; [contradiction | discriminate |].
    apply stop_full in Hs as [-> ->]. reflexivity.
  - destruct Hr as [Hfree [jt [Hjt [Hpi Hsl]]]].
    split; [exact (stop_free_not_in d k j1 (ti_status t HT) (ti_reach t HT) Hfree Hns)|].
    split; [subst i; apply probe_lt; exact Hn|]. split; [exact Hsl|].
    exists jt. split; [exact Hpi|]. intros j' Hj'. apply (stop_false_nonfree hs (N.eqb k)). apply Hns. lia.
Qed.

Lemma find_spec t k : TI t ->
  exists r, find sbits t (hash k) (N.eqb k) = Some r /\
    match r with
    | Some i => i < size t /\ exists st, get_slot (data t) i = Full st k
    | None => ~ In k (vals (data t))
    end.
Proof.
  intros HT. unfold find. destruct (N.eqb_spec (len t) 0) as [H0|H0].
  - exists None. split; [reflexivity|]. intros Hin.
    pose proof (ti_len t HT) as Hl. destruct (vals (data t)); [contradiction | cbn in Hl; lia].
  - pose proof (TI_len_size t HT H0) as Hn. unfold size in *.
    destruct (fofis_spec t k HT Hn) as [r [HF Hr]].
    rewrite (find_loop_fofis _ _ _ _ _ None), HF. destruct r as [i|i].
    + exists (Some i). split; [reflexivity|]. destruct Hr as [Hi Hg]. split; [exact Hi | eexists; exact Hg].
    + exists None. split; [reflexivity | exact (proj1 Hr)].
Qed.

Lemma lookup_spec t k : TI t ->
  exists r, lookup sbits hash t k = Some r /\
    ((r = Some k /\ In k (abs t)) \/ (r = None /\ ~ In k (abs t))).
Proof.
  intros HT. unfold lookup, get. destruct (find_spec t k HT) as [r [-> Hr]].
  destruct r as [i|].
  - destruct Hr as [Hi [st Hg]]. rewrite Hg. eexists. split; [reflexivity|]. left.
    split; [reflexivity|]. apply in_vals_iff. exists i, st. split; assumption.
  - eexists. split; [reflexivity|]. right. split; [reflexivity | exact Hr].
Qed.

(** ** remove *)

Lemma remove_at_slot_spec t i st k : TI t -> i < size t -> get_slot (data t) i = Full st k ->
  snd (remove_at_slot t i) = Some k /\ TI (fst (remove_at_slot t i)) /\
  Permutation (abs t) (k :: abs (fst (remove_at_slot t i))).
Proof.
  intros HT Hi Hg. unfold remove_at_slot, abs. rewrite Hg. unfold size in *.
  assert (Hn : length (data t) <> 0) by lia.
  pose proof (ti_len t HT) as Hlen. pose proof (ti_free t HT) as Hfree.
  pose proof (ti_free_pos t HT Hn) as Hfp. pose proof (ti_nodup t HT) as Hnd.
  (* what the two branches share: slot [i] gets a slot [s] that holds no value *)
  assert (Hboth : forall s fr, sv s = [] ->
            (fr <= N.of_nat (nfree (set_slot (data t) i s)))%N -> (1 <= fr)%N ->
            reach_ok (set_slot (data t) i s) ->
            TI (mkTbl (set_slot (data t) i s) (len t - 1) fr) /\
            Permutation (vals (data t)) (k :: vals (set_slot (data t) i s))).
  { intros s fr Hs Hfr H1 Hr.
    destruct (vals_set_slot (data t) i s Hi) as [a [b [Hv Hv']]].
    rewrite Hg in Hv. rewrite Hs in Hv'. cbn [sv app] in Hv, Hv'.
    split; [|rewrite Hv, Hv'; apply Permutation_sym, Permutation_middle].
    constructor; cbn [data len free]; unfold size; cbn [data].
    - rewrite length_set_slot. exact (ti_size t HT).
    - rewrite Hv', Hlen, Hv, !app_length. cbn [length]. lia.
    - exact Hfr.
    - intros _. exact H1.
    - apply status_ok_set; [exact (ti_status t HT)|]. intros st0 v0 ->. discriminate Hs.
    - rewrite Hv'. rewrite Hv in Hnd. apply NoDup_remove_1 in Hnd. exact Hnd.
    - exact Hr. }
  pose proof (nfree_set_slot (data t) i Free Hi) as HnF.
  pose proof (nfree_set_slot (data t) i Tomb Hi) as HnT.
  rewrite Hg in HnF, HnT. cbn [slot_is_free] in HnF, HnT.
  destruct (slot_is_free (get_slot (data t) (next_idx i (length (data t))))) eqn:En;
    cbn [fst snd data len free]; (split; [reflexivity|]).
  - (* successor free: the slot becomes FREE *)
    apply Hboth; [reflexivity | lia | lia |].
    apply (reach_ok_shrinks (data t)); [exact (ti_reach t HT)|].
    split; [apply length_set_slot|]. intros i0 Hi0.
    destruct (Nat.eq_dec i0 i) as [->|Hne].
    + rewrite get_set_same by exact Hi. split; [discriminate|]. intros _. right.
      destruct (Nat.eq_dec (next_idx i (length (data t))) i) as [He|Hne].
      * rewrite He. apply get_set_same. exact Hi.
      * rewrite get_set_other by exact Hne.
        destruct (get_slot (data t) (next_idx i (length (data t)))); try discriminate.
        reflexivity.
    + rewrite get_set_other by exact Hne. split; [intros st0 v0 H; exact H|].
      intros H. left. exact H.
  - (* otherwise a tombstone *)
    apply Hboth; [reflexivity | lia | lia |].
    apply reach_ok_tomb; [exact Hi | exact (ti_reach t HT)].
Qed.

Lemma remove_spec t k : TI t ->
  exists t' r, remove sbits hash t k = Some (t', r) /\ TI t' /\
    ((r = Some k /\ In k (abs t) /\ Permutation (abs t) (k :: abs t')) \/
     (r = None /\ ~ In k (abs t) /\ t' = t)).
Proof.
  intros HT. unfold remove, remove_entry. destruct (find_spec t k HT) as [r [-> Hr]].
  destruct r as [i|].
  - destruct Hr as [Hi [st Hg]].
    destruct (remove_at_slot_spec t i st k HT Hi Hg) as [H1 [H2 H3]].
    destruct (remove_at_slot t i) as [t' r] eqn:E. cbn [fst snd] in *.
    exists t', r. split; [reflexivity|]. split; [exact H2|]. left.
    split; [exact H1|]. split; [|exact H3].
    apply in_vals_iff. exists i, st. split; assumption.
  - exists t, None. split; [reflexivity|]. split; [exact HT|]. right.
    split; [reflexivity|]. split; [exact Hr | reflexivity].
Qed.

(** ** rehash *)

Definition notomb (d : list slot) : Prop := length (vals d) + nfree d = length d.

Lemma rehash_into_spec n : size_ok sbits n -> n <> 0 -> forall old nd,
  length nd = n -> status_ok old -> status_ok nd -> reach_ok nd -> notomb nd ->
  length (vals nd) + length (vals old) < n ->
  exists nd', rehash_into old nd = Some nd' /\ length nd' = n /\ status_ok nd' /\
    reach_ok nd' /\ notomb nd' /\ Permutation (vals nd') (vals old ++ vals nd).
Proof.
  intros Hsz Hn. induction old as [|x old IH]; intros nd Hlen Hso Hsn Hrn Hnt Hcnt.
  - exists nd. cbn [rehash_into]. repeat split; try assumption. apply Permutation_refl.
  - assert (Hso' : status_ok old) by (intros st v H; apply Hso; right; exact H).
    destruct x as [| |st v].
    + cbn [rehash_into]. rewrite vals_cons in *. cbn [sv app] in *. apply IH; assumption.
    + cbn [rehash_into]. rewrite vals_cons in *. cbn [sv app] in *. apply IH; assumption.
    + cbn [rehash_into]. rewrite vals_cons in Hcnt. cbn [sv app length] in Hcnt.
      assert (Hst : st = status sbits (hash v)) by (apply Hso; left; reflexivity).
      assert (Hhome : home st (length nd) = home (hash v) (length nd)).
      { rewrite Hst, Hlen. apply home_status; assumption. }
      rewrite Hhome.
      assert (Hfree : exists f, f < length nd /\ get_slot nd f = Free).
      { apply nfree_pos_ex. unfold notomb in Hnt. lia. }
      assert (Hh : home (hash v) (length nd) < length nd) by (apply home_lt; lia).
      destruct (first_hit slot_is_free nd (home (hash v) (length nd)) eq_refl Hh Hfree)
        as [j1 [Hj1 [Hs Hns]]].
      assert (Hn' : length nd <> 0) by lia.
      pose proof (place_spec nd st v (home (hash v) (length nd)) Hn' j1 0 (length nd) Hj1) as HP.
      rewrite probe_0 in HP by exact Hh. cbn [Nat.add] in HP.
      assert (Hnf : forall j', j' < j1 ->
                get_slot nd (probe (length nd) (home (hash v) (length nd)) j') <> Free).
      { intros j' Hj' Hf. specialize (Hns j' Hj'). rewrite Hf in Hns. discriminate. }
      assert (Hf1 : get_slot nd (probe (length nd) (home (hash v) (length nd)) j1) = Free).
      { destruct (get_slot nd (probe (length nd) (home (hash v) (length nd)) j1));
          [reflexivity | discriminate | discriminate]. }
      rewrite HP; [|intros j' Hj'; apply Hnf; lia | exact Hf1].
      set (i1 := probe (length nd) (home (hash v) (length nd)) j1) in *.
      assert (Hi1 : i1 < length nd) by (apply probe_lt; exact Hn').
      assert (HPv : Permutation (vals (set_slot nd i1 (Full st v))) (v :: vals nd))
        by (apply vals_fill; [exact Hi1 | rewrite Hf1; reflexivity]).
      pose proof (Permutation_length HPv) as HLv. cbn [length] in HLv.
      pose proof (nfree_set_slot nd i1 (Full st v) Hi1) as Hnfr.
      rewrite Hf1 in Hnfr. cbn [slot_is_free] in Hnfr.
      destruct (IH (set_slot nd i1 (Full st v))) as [nd' [H1 [H2 [H3 [H4 [H5 H6]]]]]].
      * rewrite length_set_slot. exact Hlen.
      * exact Hso'.
      * apply status_ok_set; [exact Hsn|]. intros st0 v0 He. injection He as <- <-. exact Hst.
      * apply reach_ok_fill; [exact Hi1 | exact Hrn |].
        exists j1. split; [reflexivity | exact Hnf].
      * unfold notomb in *. rewrite length_set_slot. clear - Hnt HLv Hnfr. lia.
      * clear - Hcnt HLv. lia.
      * exists nd'. repeat split; try assumption.
        rewrite vals_cons. cbn [sv app].
        eapply Permutation_trans; [exact H6|].
        eapply Permutation_trans; [apply Permutation_app_head; exact HPv|].
        apply Permutation_sym, Permutation_middle.
Qed.

Lemma reserve_rehash_spec t a :
  status_ok (data t) -> NoDup (vals (data t)) -> len t = N.of_nat (length (vals (data t))) ->
  (next_capacity (len t + a) <= 2 ^ sbits)%N ->
  exists t', reserve_rehash t a = Some t' /\ TI t' /\ Permutation (abs t') (abs t) /\
    (((len t + a)%N = 0%N /\ size t' = 0) \/ (a + 1 <= free t')%N).
Proof.
  intros Hso Hnd Hlen Hcap. unfold reserve_rehash, abs.
  destruct (N.eqb_spec (next_capacity (len t + a)) 0) as [H0|H0].
  - apply (proj1 (next_capacity_0 _)) in H0.
    assert (Hv : vals (data t) = []) by (apply length_zero_iff_nil; lia).
    eexists. split; [reflexivity|]. split; [|split].
    + replace (len t) with 0%N by lia. exact TI_empty.
    + cbn [data]. rewrite Hv. apply Permutation_refl.
    + left. split; [exact H0 | reflexivity].
  - set (c := next_capacity (len t + a)) in *.
    assert (Hr : (len t + a <> 0)%N) by (intros H; apply H0, next_capacity_0; exact H).
    pose proof (next_capacity_gt _ Hr) as Hgt. fold c in Hgt.
    pose proof (next_capacity_size_ok sbits _ Hcap) as Hsz. fold c in Hsz.
    destruct (rehash_into_spec (N.to_nat c) Hsz ltac:(lia) (data t) (repeat Free (N.to_nat c)))
      as [nd' [H1 [H2 [H3 [H4 [H5 H6]]]]]].
    + apply repeat_length.
    + exact Hso.
    + apply status_ok_repeat.
    + apply reach_ok_novals, vals_repeat_free.
    + unfold notomb. rewrite vals_repeat_free, nfree_repeat_free, repeat_length. reflexivity.
    + rewrite vals_repeat_free. cbn [length]. lia.
    + rewrite H1. eexists. split; [reflexivity|].
      rewrite vals_repeat_free, app_nil_r in H6.
      pose proof (Permutation_length H6) as Hpl. unfold notomb in H5.
      split; [|split].
      * constructor; cbn [data len free]; unfold size; cbn [data].
        -- rewrite H2. exact Hsz.
        -- clear - Hlen Hpl. lia.
        -- clear - Hlen Hpl H5 H2 Hgt. lia.
        -- intros _. clear - Hgt. lia.
        -- exact H3.
        -- apply (Permutation_NoDup (Permutation_sym H6)). exact Hnd.
        -- exact H4.
      * cbn [data]. exact H6.
      * right. cbn [free]. clear - Hgt. lia.
Qed.

Definition reserve_fits (t : tbl) (a : N) : Prop :=
  (free t <? a + sizeN t / RATIO_D * (RATIO_D - RATIO_N))%N = true ->
  (next_capacity (len t + a) <= 2 ^ sbits)%N.

Lemma reserve_spec t a : TI t -> reserve_fits t a ->
  exists t', reserve t a = Some t' /\ TI t' /\ Permutation (abs t') (abs t) /\
    ((a = 0%N /\ size t' = 0) \/ (a + 1 <= free t')%N).
Proof.
  intros HT Hfit. unfold reserve, reserve_fits in *.
  destruct (N.ltb_spec (free t) (a + sizeN t / RATIO_D * (RATIO_D - RATIO_N))) as [Hlt|Hge].
  - destruct (reserve_rehash_spec t a (ti_status t HT) (ti_nodup t HT) (ti_len t HT)
                (Hfit eq_refl)) as [t' [H1 [H2 [H3 H4]]]].
    exists t'. split; [exact H1|]. split; [exact H2|]. split; [exact H3|].
    destruct H4 as [[H4 H5]|H4]; [left; split; [lia | exact H5] | right; exact H4].
  - exists t. split; [reflexivity|]. split; [exact HT|]. split; [apply Permutation_refl|].
    rewrite spare_eq in Hge. unfold sizeN in Hge.
    pose proof (ti_free t HT) as Hf. pose proof (vals_nfree_le (data t)) as Hle.
    destruct (ti_size t HT) as [Hz|[H16 _]].
    + left. unfold size in *. split; [lia | exact Hz].
    + right. unfold size in *. lia.
Qed.

(** ** insert *)

Lemma insert_spec t k : TI t -> reserve_fits t 1 ->
  exists t' b, insert sbits hash t k = Some (t', b) /\ TI t' /\
    ((b = true /\ ~ In k (abs t) /\ Permutation (abs t') (k :: abs t)) \/
     (b = false /\ In k (abs t) /\ Permutation (abs t') (abs t))).
Proof.
  intros HT Hfit. unfold insert, find_or_find_insert_slot.
  destruct (reserve_spec t 1 HT Hfit) as [t1 [-> [HT1 [Hperm Hfr]]]].
  destruct Hfr as [[Hfr _]|Hfr]; [lia|].
  pose proof (ti_free t1 HT1) as Hf1. pose proof (vals_nfree_le (data t1)) as Hle.
  assert (Hn : length (data t1) <> 0) by lia.
  unfold size.
  destruct (fofis_spec t1 k HT1 Hn) as [r [HF Hr]]. rewrite HF. destruct r as [i|i].
  - (* already present *)
    destruct Hr as [Hi Hg]. exists t1, false. split; [reflexivity|]. split; [exact HT1|].
    right. split; [reflexivity|]. split; [|exact Hperm].
    apply (Permutation_in _ Hperm). apply in_vals_iff. eexists _, _. split; [exact Hi | exact Hg].
  - (* new element *)
    destruct Hr as [Hnin [Hi [Hsl Hpath]]].
    exists (insert_in_slot sbits t1 (hash k) i k), true. split; [reflexivity|].
    pose proof (nfree_set_slot (data t1) i (Full (status sbits (hash k)) k) Hi) as Hnfr.
    cbn [slot_is_free] in Hnfr.
    assert (HP : Permutation (vals (set_slot (data t1) i (Full (status sbits (hash k)) k)))
                             (k :: vals (data t1)))
      by (apply vals_fill; [exact Hi | destruct Hsl as [-> | ->]; reflexivity]).
    pose proof (ti_len t1 HT1) as Hlen. pose proof (ti_nodup t1 HT1) as Hnd.
    split.
    + unfold insert_in_slot.
      constructor; cbn [data len free]; unfold size; cbn [data].
      * rewrite length_set_slot. exact (ti_size t1 HT1).
      * rewrite (Permutation_length HP). cbn [length]. lia.
      * clear - Hsl Hnfr Hf1 Hfr. destruct Hsl as [Hsl|Hsl]; rewrite Hsl in *; cbn [slot_is_free] in Hnfr; lia.
      * intros _. clear - Hfr. destruct (get_slot (data t1) i); lia.
      * apply status_ok_set; [exact (ti_status t1 HT1)|].
        intros st0 v0 He. injection He as <- <-. reflexivity.
      * apply (Permutation_NoDup (Permutation_sym HP)). constructor; assumption.
      * apply reach_ok_fill; [exact Hi | exact (ti_reach t1 HT1) | exact Hpath].
    + left. split; [reflexivity|]. split.
      * intros Hin. apply Hnin. apply (Permutation_in _ (Permutation_sym Hperm)). exact Hin.
      * unfold abs, insert_in_slot. cbn [data].
        eapply Permutation_trans; [exact HP|]. constructor. exact Hperm.
Qed.

End Core.
