(** * The abstract node store: a map  id -> (payload, count)  with fresh ids

    What a node store is to its clients, whatever its ids are (slab addresses in the
    pointer-based manager, slot indices in the index-based one): [AAdd] puts a payload under ANY
    id that is not in use, with count 1; [AClone] / [AEnd] of a handle count up / down; the
    payload leaves the store exactly when the count reaches 0.  The client's handle variables
    are part of the state ([a_hs]).

    [astep] is a relation (the id of a new entry is not determined).  Theorems: the counting
    invariant [AInv] (count = number of handle variables, never 0) is kept by every step, and
    the RESULTS of a script do not depend on the ids: two stores with different id types /
    allocation policies that run the same script from related states return the same results
    ([astep_id_independent], [aruns_id_independent]). *)

From Coq Require Import List NArith Bool Arith Lia.
Import ListNotations.

Local Open Scope N_scope.

Arguments N.add : simpl never.
Arguments N.sub : simpl never.

Inductive aop := AAdd (h : nat) (p : N) | AClone (h h2 : nat) | AEnd (h : nat) | AGet (h : nat).

Inductive ares :=
  | ARAdded                 (* a new entry *)
  | ARCount (rc : N)        (* the count after a clone *)
  | ARGone (p : N)          (* the handle was the last one: the payload leaves the store *)
  | ARKept                  (* other handles remain *)
  | ARVal (p rc : N).       (* payload and count *)

Section Store.
Variable I : Type.
Variable ieqb : I -> I -> bool.
Hypothesis ieqb_eq : forall a b, ieqb a b = true <-> a = b.

Record astate := mkA { a_map : I -> option (N * N); a_hs : list (nat * I) }.

Fixpoint afind (h : nat) (hs : list (nat * I)) : option I :=
  match hs with
  | [] => None
  | (k, v) :: r => if (k =? h)%nat then Some v else afind h r
  end.

Fixpoint aremove (h : nat) (hs : list (nat * I)) : list (nat * I) :=
  match hs with
  | [] => []
  | (k, v) :: r => if (k =? h)%nat then aremove h r else (k, v) :: aremove h r
  end.

Definition acount (id : I) (hs : list (nat * I)) : nat :=
  length (filter (fun e => ieqb (snd e) id) hs).

Definition astep (s : astate) (o : aop) (r : ares) (s' : astate) : Prop :=
  match o with
  | AAdd h p =>
      afind h (a_hs s) = None /\
      exists id, a_map s id = None /\ r = ARAdded /\ a_hs s' = (h, id) :: a_hs s /\
                 forall j, a_map s' j = if ieqb id j then Some (p, 1) else a_map s j
  | AClone h h2 =>
      exists id p rc, afind h (a_hs s) = Some id /\ afind h2 (a_hs s) = None /\
                      a_map s id = Some (p, rc) /\ r = ARCount (rc + 1) /\
                      a_hs s' = (h2, id) :: a_hs s /\
                      forall j, a_map s' j = if ieqb id j then Some (p, rc + 1) else a_map s j
  | AEnd h =>
      exists id p rc, afind h (a_hs s) = Some id /\ a_map s id = Some (p, rc) /\
                      a_hs s' = aremove h (a_hs s) /\
                      ((rc = 1 /\ r = ARGone p /\ forall j, a_map s' j = if ieqb id j then None else a_map s j) \/
                       (rc <> 1 /\ r = ARKept /\ forall j, a_map s' j = if ieqb id j then Some (p, rc - 1) else a_map s j))
  | AGet h =>
      exists id p rc, afind h (a_hs s) = Some id /\ a_map s id = Some (p, rc) /\ r = ARVal p rc /\
                      a_hs s' = a_hs s /\ forall j, a_map s' j = a_map s j
  end.

(** the count of an entry = the number of handle variables that refer to it, never 0 *)
Definition AInv (s : astate) : Prop :=
  NoDup (map fst (a_hs s)) /\
  forall id, match a_map s id with
             | Some (p, rc) => rc = N.of_nat (acount id (a_hs s)) /\ (1 <= acount id (a_hs s))%nat
             | None => acount id (a_hs s) = 0%nat
             end.

(** ** handle lists *)

Lemma ieqb_refl a : ieqb a a = true.
Proof. apply ieqb_eq. reflexivity. Qed.

Lemma ieqb_neq a b : ieqb a b = false <-> a <> b.
Proof.
  split.
  - intros H E. apply ieqb_eq in E. congruence.
  - intros H. destruct (ieqb a b) eqn:E; [apply ieqb_eq in E; contradiction | reflexivity].
Qed.

Lemma acount_cons id h v hs :
  acount id ((h, v) :: hs) = ((if ieqb v id then 1 else 0) + acount id hs)%nat.
Proof. unfold acount. cbn. destruct (ieqb v id); reflexivity. Qed.

Lemma afind_In h hs v : afind h hs = Some v -> In (h, v) hs.
Proof.
  induction hs as [|[k x] r IH]; cbn; [discriminate|].
  destruct (Nat.eqb_spec k h) as [->|Hne]; [intros H; inversion H; auto | auto].
Qed.

Lemma afind_None h hs : afind h hs = None <-> ~ In h (map fst hs).
Proof.
  induction hs as [|[k x] r IH]; cbn; [tauto|].
  destruct (Nat.eqb_spec k h) as [->|Hne]; [split; [discriminate | tauto]|].
  rewrite IH. tauto.
Qed.

Lemma afind_aremove h hs h' :
  afind h' (aremove h hs) = if (h =? h')%nat then None else afind h' hs.
Proof.
  induction hs as [|[k x] r IH]; cbn [aremove afind]; [destruct (h =? h')%nat; reflexivity|].
  destruct (Nat.eqb_spec k h) as [->|Hne].
  - rewrite IH. destruct (Nat.eqb_spec h h') as [->|Hne']; [reflexivity|].
    destruct (Nat.eqb_spec h h'); [contradiction | reflexivity].
  - cbn [afind]. rewrite IH. destruct (Nat.eqb_spec k h') as [->|Hne'].
    + destruct (Nat.eqb_spec h h'); [congruence | reflexivity].
    + reflexivity.
Qed.

Lemma aremove_keys h hs :
  map fst (aremove h hs) = filter (fun k => negb (k =? h)%nat) (map fst hs).
Proof.
  induction hs as [|[k x] r IH]; cbn; [reflexivity|].
  destruct (k =? h)%nat; cbn; rewrite IH; reflexivity.
Qed.

Lemma aremove_NoDup h hs : NoDup (map fst hs) -> NoDup (map fst (aremove h hs)).
Proof. intros H. rewrite aremove_keys. apply NoDup_filter. exact H. Qed.

Lemma aremove_notin h hs : ~ In h (map fst hs) -> aremove h hs = hs.
Proof.
  induction hs as [|[k x] r IH]; cbn; [auto|]. intros H.
  destruct (Nat.eqb_spec k h); [tauto|]. f_equal. apply IH. tauto.
Qed.

Lemma aremove_acount h hs v id :
  NoDup (map fst hs) -> afind h hs = Some v ->
  acount id hs = ((if ieqb v id then 1 else 0) + acount id (aremove h hs))%nat.
Proof.
  induction hs as [|[k x] r IH]; cbn [afind aremove map]; [discriminate|]. intros Hnd Hf.
  inversion Hnd; subst. rewrite acount_cons. cbn [fst] in *.
  destruct (Nat.eqb_spec k h) as [->|Hne].
  - inversion Hf; subst x. rewrite aremove_notin by assumption. reflexivity.
  - rewrite acount_cons, (IH H2 Hf). lia.
Qed.

Lemma acount_pos id hs : (1 <= acount id hs)%nat <-> exists h, In (h, id) hs.
Proof.
  induction hs as [|[k x] r IH].
  - unfold acount; cbn. split; [lia | intros [h []]].
  - rewrite acount_cons. destruct (ieqb x id) eqn:E.
    + apply ieqb_eq in E. subst x. split; [|lia]. intros _. exists k. cbn; auto.
    + rewrite Nat.add_0_l, IH. split.
      * intros [h H]. exists h. cbn; auto.
      * intros [h [H|H]]; [|eauto]. inversion H; subst. apply ieqb_neq in E. congruence.
Qed.

Lemma AInv_live s h id : AInv s -> afind h (a_hs s) = Some id -> a_map s id <> None.
Proof.
  intros [_ H] Hf. specialize (H id).
  assert (Hp : (1 <= acount id (a_hs s))%nat) by (apply acount_pos; exists h; apply afind_In; exact Hf).
  destruct (a_map s id) as [[p rc]|]; [discriminate | lia].
Qed.

(** ** every step keeps the counting invariant *)
Theorem astep_inv s o r s' : AInv s -> astep s o r s' -> AInv s'.
Proof.
  intros [Hnd Hc] Hst. destruct o as [h p|h h2|h|h]; cbn [astep] in Hst.
  - destruct Hst as (Hf & id & Hm & _ & Hhs & Hmap). split.
    + rewrite Hhs. cbn. constructor; [apply afind_None; exact Hf | exact Hnd].
    + intros j. rewrite Hmap, Hhs, acount_cons. destruct (ieqb id j) eqn:E.
      * apply ieqb_eq in E. subst j. specialize (Hc id). rewrite Hm in Hc. rewrite Hc. cbn. split; [reflexivity | lia].
      * cbn. apply Hc.
  - destruct Hst as (id & p & rc & Hf & Hf2 & Hm & _ & Hhs & Hmap). split.
    + rewrite Hhs. cbn. constructor; [apply afind_None; exact Hf2 | exact Hnd].
    + intros j. rewrite Hmap, Hhs, acount_cons. destruct (ieqb id j) eqn:E.
      * apply ieqb_eq in E. subst j. specialize (Hc id). rewrite Hm in Hc. split; lia.
      * cbn. apply Hc.
  - destruct Hst as (id & p & rc & Hf & Hm & Hhs & Hcase). split.
    + rewrite Hhs. apply aremove_NoDup. exact Hnd.
    + intros j. rewrite Hhs. pose proof (aremove_acount h (a_hs s) id j Hnd Hf) as Hcnt.
      pose proof (Hc id) as Hid. rewrite Hm in Hid.
      destruct Hcase as [(E & _ & Hmap)|(E & _ & Hmap)]; rewrite Hmap; destruct (ieqb id j) eqn:Ej.
      * apply ieqb_eq in Ej. subst j. lia.
      * specialize (Hc j). cbn in Hcnt. rewrite <- Hcnt. exact Hc.
      * apply ieqb_eq in Ej. subst j. split; lia.
      * specialize (Hc j). cbn in Hcnt. rewrite <- Hcnt. exact Hc.
  - destruct Hst as (id & p & rc & _ & _ & _ & Hhs & Hmap). split.
    + rewrite Hhs. exact Hnd.
    + intros j. rewrite Hmap, Hhs. apply Hc.
Qed.

(** [astep] only looks at the handle list and at the map pointwise *)
Lemma astep_ext s o r s1 s2 :
  astep s o r s1 -> a_hs s2 = a_hs s1 -> (forall j, a_map s2 j = a_map s1 j) -> astep s o r s2.
Proof.
  intros H Eh Em. destruct o as [h p|h h2|h|h]; cbn [astep] in *.
  - destruct H as (Hf & id & Hm & Hr & Hhs & Hmap). split; [exact Hf|]. exists id.
    repeat (split; [assumption || congruence|]). intros j. rewrite Em. apply Hmap.
  - destruct H as (id & p & rc & Hf & Hf2 & Hm & Hr & Hhs & Hmap). exists id, p, rc.
    repeat (split; [assumption || congruence|]). intros j. rewrite Em. apply Hmap.
  - destruct H as (id & p & rc & Hf & Hm & Hhs & Hc). exists id, p, rc.
    repeat (split; [assumption || congruence|]).
    destruct Hc as [(E & Hr & Hmap)|(E & Hr & Hmap)]; [left | right]; (split; [exact E|]); (split; [exact Hr|]);
      intros j; rewrite Em; apply Hmap.
  - destruct H as (id & p & rc & Hf & Hm & Hr & Hhs & Hmap). exists id, p, rc.
    repeat (split; [assumption || congruence|]). intros j. rewrite Em. apply Hmap.
Qed.

(** whole scripts *)
Inductive aruns : astate -> list aop -> list ares -> astate -> Prop :=
  | aruns_nil s : aruns s [] [] s
  | aruns_cons s o r s1 os rs s2 : astep s o r s1 -> aruns s1 os rs s2 -> aruns s (o :: os) (r :: rs) s2.

Theorem aruns_inv s os rs s' : AInv s -> aruns s os rs s' -> AInv s'.
Proof. intros H R. induction R; [exact H | apply IHR; eapply astep_inv; eauto]. Qed.

End Store.

Arguments mkA {I}.
Arguments a_map {I}.
Arguments a_hs {I}.
Arguments afind {I}.
Arguments aremove {I}.

(** ** the results do not depend on the ids *)
Section Independent.
Variables I1 I2 : Type.
Variable eqb1 : I1 -> I1 -> bool.
Variable eqb2 : I2 -> I2 -> bool.
Hypothesis eqb1_eq : forall a b, eqb1 a b = true <-> a = b.
Hypothesis eqb2_eq : forall a b, eqb2 a b = true <-> a = b.

(** same handle variables; corresponding handles see the same (payload, count); two handle
    variables refer to the same entry in one store iff they do in the other *)
Definition sim (s1 : astate I1) (s2 : astate I2) : Prop :=
  map fst (a_hs s1) = map fst (a_hs s2) /\
  (forall h id1 id2, afind h (a_hs s1) = Some id1 -> afind h (a_hs s2) = Some id2 ->
     a_map s1 id1 = a_map s2 id2) /\
  (forall h h' id1 id1' id2 id2',
     afind h (a_hs s1) = Some id1 -> afind h' (a_hs s1) = Some id1' ->
     afind h (a_hs s2) = Some id2 -> afind h' (a_hs s2) = Some id2' ->
     (id1 = id1' <-> id2 = id2')).

Lemma if_eqb1 {A} a b (x y : A) : (if eqb1 a b then x else y) = x \/ a <> b.
Proof. destruct (eqb1 a b) eqn:E; [auto | right; intros H; apply eqb1_eq in H; congruence]. Qed.

Lemma sim_bound s1 s2 h :
  sim s1 s2 -> (afind h (a_hs s1) = None <-> afind h (a_hs s2) = None).
Proof. intros (Hk & _). rewrite !afind_None, Hk. tauto. Qed.

Lemma sim_old s1 s2 h id1 id2 h0 a b :
  sim s1 s2 -> afind h (a_hs s1) = Some id1 -> afind h (a_hs s2) = Some id2 ->
  afind h0 (a_hs s1) = Some a -> afind h0 (a_hs s2) = Some b ->
  (a = id1 /\ b = id2) \/ (a <> id1 /\ b <> id2).
Proof.
  intros (_ & _ & Hal) Hf1 Hf2 E1 E2. pose proof (Hal h h0 id1 a id2 b Hf1 E1 Hf2 E2) as Hiff.
  destruct (eqb1 id1 a) eqn:E.
  - apply eqb1_eq in E. left. split; symmetry; [exact E | apply Hiff, E].
  - right. assert (N1 : id1 <> a) by (intros H; apply eqb1_eq in H; congruence).
    split; intros H; apply N1; [symmetry; exact H | apply Hiff; symmetry; exact H].
Qed.

Lemma sim_update s1 s2 s1' s2' id1 id2 (v : option (N * N)) :
  sim s1 s2 ->
  (forall j, a_map s1' j = if eqb1 id1 j then v else a_map s1 j) ->
  (forall j, a_map s2' j = if eqb2 id2 j then v else a_map s2 j) ->
  map fst (a_hs s1') = map fst (a_hs s2') ->
  (forall h a b, afind h (a_hs s1') = Some a -> afind h (a_hs s2') = Some b ->
     (a = id1 /\ b = id2) \/
     (a <> id1 /\ b <> id2 /\ afind h (a_hs s1) = Some a /\ afind h (a_hs s2) = Some b)) ->
  sim s1' s2'.
Proof.
  intros (_ & Hv & Hal) Hmap1 Hmap2 Hk Hcl. split; [exact Hk|]. split.
  - intros h a b E1 E2. rewrite Hmap1, Hmap2.
    destruct (Hcl h a b E1 E2) as [[-> ->]|(N1 & N2 & F1 & F2)].
    + rewrite (ieqb_refl I1 eqb1 eqb1_eq), (ieqb_refl I2 eqb2 eqb2_eq). reflexivity.
    + rewrite (proj2 (ieqb_neq I1 eqb1 eqb1_eq id1 a)), (proj2 (ieqb_neq I2 eqb2 eqb2_eq id2 b)) by congruence.
      exact (Hv h a b F1 F2).
  - intros h h' a a' b b' E1 E1' E2 E2'.
    destruct (Hcl h a b E1 E2) as [[-> ->]|(N1 & N2 & F1 & F2)];
      destruct (Hcl h' a' b' E1' E2') as [[-> ->]|(N1' & N2' & F1' & F2')].
    + tauto.
    + split; intros E; exfalso; [apply N1' | apply N2']; symmetry; exact E.
    + split; intros E; exfalso; [apply N1 | apply N2]; exact E.
    + exact (Hal h h' a a' b b' F1 F1' F2 F2').
Qed.

Theorem astep_id_independent s1 s2 o r1 r2 s1' s2' :
  AInv I1 eqb1 s1 -> AInv I2 eqb2 s2 -> sim s1 s2 ->
  astep I1 eqb1 s1 o r1 s1' -> astep I2 eqb2 s2 o r2 s2' ->
  r1 = r2 /\ sim s1' s2'.
Proof.
  intros HI1 HI2 Hsim H1 H2. pose proof Hsim as (Hk & Hv & _).
  destruct o as [h p|h h2|h|h]; cbn [astep] in H1, H2.
  - (* AAdd: the new ids are not bound to any handle variable *)
    destruct H1 as (Hf1 & id1 & Hm1 & -> & Hhs1 & Hmap1). destruct H2 as (Hf2 & id2 & Hm2 & -> & Hhs2 & Hmap2).
    split; [reflexivity|].
    apply (sim_update s1 s2 s1' s2' id1 id2 (Some (p, 1)) Hsim Hmap1 Hmap2);
      [rewrite Hhs1, Hhs2; cbn; f_equal; exact Hk|].
    intros h0 a b. rewrite Hhs1, Hhs2. cbn [afind].
    destruct (h =? h0)%nat; intros E1 E2; [left; split; congruence|]. right.
    split; [intros ->; exact (AInv_live I1 eqb1 eqb1_eq s1 h0 id1 HI1 E1 Hm1)|].
    split; [intros ->; exact (AInv_live I2 eqb2 eqb2_eq s2 h0 id2 HI2 E2 Hm2)|]. split; assumption.
  - (* AClone *)
    destruct H1 as (id1 & p1 & rc1 & Hf1 & Hn1 & Hm1 & -> & Hhs1 & Hmap1).
    destruct H2 as (id2 & p2 & rc2 & Hf2 & Hn2 & Hm2 & -> & Hhs2 & Hmap2).
    pose proof (Hv h id1 id2 Hf1 Hf2) as E. rewrite Hm1, Hm2 in E. injection E as <- <-.
    split; [reflexivity|].
    apply (sim_update s1 s2 s1' s2' id1 id2 (Some (p1, rc1 + 1)) Hsim Hmap1 Hmap2);
      [rewrite Hhs1, Hhs2; cbn; f_equal; exact Hk|].
    intros h0 a b. rewrite Hhs1, Hhs2. cbn [afind].
    destruct (h2 =? h0)%nat; intros E1 E2; [left; split; congruence|].
    destruct (sim_old s1 s2 h id1 id2 h0 a b Hsim Hf1 Hf2 E1 E2) as [E|[N1 N2]]; [left; exact E | right; auto].
  - (* AEnd *)
    destruct H1 as (id1 & p1 & rc1 & Hf1 & Hm1 & Hhs1 & Hc1).
    destruct H2 as (id2 & p2 & rc2 & Hf2 & Hm2 & Hhs2 & Hc2).
    pose proof (Hv h id1 id2 Hf1 Hf2) as E. rewrite Hm1, Hm2 in E. injection E as <- <-.
    assert (Hupd : forall v, (forall j, a_map s1' j = if eqb1 id1 j then v else a_map s1 j) ->
                             (forall j, a_map s2' j = if eqb2 id2 j then v else a_map s2 j) -> sim s1' s2').
    { intros v Hmap1 Hmap2.
      apply (sim_update s1 s2 s1' s2' id1 id2 v Hsim Hmap1 Hmap2);
        [rewrite Hhs1, Hhs2, !aremove_keys, Hk; reflexivity|].
      intros h0 a b. rewrite Hhs1, Hhs2, !afind_aremove. destruct (h =? h0)%nat; [discriminate|]. intros E1 E2.
      destruct (sim_old s1 s2 h id1 id2 h0 a b Hsim Hf1 Hf2 E1 E2) as [E|[N1 N2]]; [left; exact E | right; auto]. }
    destruct Hc1 as [(Erc & -> & Hmap1)|(Erc & -> & Hmap1)]; destruct Hc2 as [(Erc2 & -> & Hmap2)|(Erc2 & -> & Hmap2)];
      try congruence; (split; [reflexivity | exact (Hupd _ Hmap1 Hmap2)]).
  - (* AGet *)
    destruct H1 as (id1 & p1 & rc1 & Hf1 & Hm1 & -> & Hhs1 & Hmap1).
    destruct H2 as (id2 & p2 & rc2 & Hf2 & Hm2 & -> & Hhs2 & Hmap2).
    pose proof (Hv h id1 id2 Hf1 Hf2) as E. rewrite Hm1, Hm2 in E. injection E as <- <-.
    split; [reflexivity|]. destruct Hsim as (_ & _ & Hal).
    split; [rewrite Hhs1, Hhs2; exact Hk|]. split.
    + intros h0 a b. rewrite Hhs1, Hhs2, Hmap1, Hmap2. apply Hv.
    + intros h0 h0' a a' b b'. rewrite Hhs1, Hhs2. apply Hal.
Qed.

Theorem aruns_id_independent os : forall s1 s2 rs1 rs2 s1' s2',
  AInv I1 eqb1 s1 -> AInv I2 eqb2 s2 -> sim s1 s2 ->
  aruns I1 eqb1 s1 os rs1 s1' -> aruns I2 eqb2 s2 os rs2 s2' ->
  rs1 = rs2 /\ sim s1' s2'.
Proof.
  induction os as [|o os IH]; intros s1 s2 rs1 rs2 s1' s2' HI1 HI2 Hs R1 R2; inversion R1; inversion R2; subst.
  - auto.
  - destruct (astep_id_independent _ _ _ _ _ _ _ HI1 HI2 Hs H2 H9) as [-> Hs'].
    destruct (IH _ _ _ _ _ _ (astep_inv I1 eqb1 eqb1_eq _ _ _ _ HI1 H2) (astep_inv I2 eqb2 eqb2_eq _ _ _ _ HI2 H9) Hs' H5 H12) as [-> Hs''].
    auto.
Qed.

End Independent.
